(* Proof/Fun2CoreFLg  -  the fundamental lemma: the model's [guard_capture] (a continuation that mentions a binder
   of the term is named by a fresh covariable first: [fl_guard], with [flw_in] the statement for the inner
   translation), let (the continuation is placed under the binder), label, goto. *)
From Coq Require Import List ZArith NArith String Bool Lia.
From SCC Require Import Proof.CoreInd.
From SCC Require Import Base.Sexp Lang.SynUtil Lang.FunSyn Lang.FunTy Lang.CoreSyn.
From SCC Require Import Sem.AxSem Sem.CoreSem Sem.FunSem Model.Fun2Core.
From SCC Require Import Proof.Fun2CoreProof Proof.Fun2CoreSim Proof.Fun2CoreTfv Proof.Fun2CoreInv Proof.Fun2CoreUB
     Proof.Fun2CoreRel Proof.Fun2CoreFLa Proof.Fun2CoreFLb Proof.Fun2CoreFLc Proof.Fun2CoreFLd Proof.Fun2CoreFLe.
Import ListNotations.
Open Scope string_scope.
Open Scope list_scope.


Lemma inG_name : forall G l bb, inG G l bb -> exists x, cbvar bb = new_id x /\ In x l.
Proof.
  intros G l bb [_ H]. apply in_map_iff in H. destruct H as [x [E Hx]]. exists x. split; [symmetry; exact E | exact Hx].
Qed.

Section FLg.
  Variable p : fcprog.
  Variable cp : cprog.
  Hypothesis Hcod : cpcodata cp = codata_of p.

  Lemma inG_used : forall G l bb st, Gused G st -> inG G l bb ->
    exists y, cbvar bb = new_id y /\ In y (st_used_vars st).
  Proof. intros G l bb st HG [Hg _]. apply HG. eapply gl_In. exact Hg. Qed.
  Lemma erel_kind : forall n G (S : cident -> Prop) e ce bb, erel p cp n G S e ce ->
    gl G (cbvar bb) = Some bb -> S (cbvar bb) ->
    exists b', clookup ce (cbvar bb) = Some b' /\ ckind b' = cbchi bb.
  Proof.
    intros n G S e ce bb He Hg Hs. destruct (He bb Hg Hs) as [x [b [b' [E1 [E2 [E3 [E4 [E5 E6]]]]]]]].
    exists b'. rewrite E1. split; [exact E3|]. rewrite <- E6. symmetry. eapply brel_kind. exact E4.
  Qed.

  (* binders that would capture the continuation (repair d5d4151)
     The translation places the continuation under the binder of a let / the binders of the patterns of a case.
     When a name of a binder occurs free in the continuation, the continuation is first NAMED by a fresh
     covariable: < mu a. [[t]]_a | cont >, and the term is translated with the covariable as continuation.
     The fundamental lemma for such a term is proved for the inner translation under the hypothesis that no binder
     occurs in the continuation (flw_in); fl_guard then gives it for the guarded translation, in both cases. *)
  Lemma captures_notin : forall binders cont, captures binders cont = false ->
    forall b, In b binders -> ~ In (new_id b) (cnames (fvt cont)).
  Proof.
    intros binders cont H b Hb Hin. unfold captures in H.
    assert (E : existsb (fun b0 => existsb (fun bb => String.eqb (fst (cbvar bb)) b0) (tfv_term cont [])) binders = true).
    { apply existsb_exists. exists b. split; [exact Hb|]. apply existsb_exists.
      apply in_cnames_inv in Hin. destruct Hin as [bb [Hbb Eb]]. exists bb. split; [exact Hbb|].
      rewrite Eb. simpl. apply String.eqb_refl. }
    rewrite E in H. discriminate H.
  Qed.

  Definition flw_in (N : nat) (t : fterm) (binders : list fname) (W : string -> cterm -> M cstmt) : Prop :=
    forall n, (n <= N)%nat -> forall G cur cont st s st' e ce k,
      W cur cont st = Ok (s, st') ->
      (forall b, In b binders -> ~ In (new_id b) (cnames (fvt cont))) ->
      frag p t = true -> kd p t = true -> ws G t = true ->
      lifted_ok cp st' -> Gused G st -> incl (bnd t) (st_used_vars st) ->
      names_in (cnames (fvt cont)) st ->
      cont_shape cp (tkind p t) cont ->
      erel p cp n G (Sof (fvs s)) e ce ->
      CK p cp n (tkind p t) k cont ce (Sof (fvs s)) ->
      sim p cp n (FEval t e k) (SNext (Run s ce)).

  Lemma fl_guard : forall N t binders (W : string -> cterm -> M cstmt) lty,
    (forall cur cont, wc (codata_of p) cur false t cont = guard_capture false binders (W cur) lty cont) ->
    fterm_type t = lty ->
    flw_in N t binders W -> flw p cp N t.
  Proof.
    intros N t binders W lty HW Hty Hin.
    intros n Hn G cur cont st s st' e ce k Hwc Hf Hkd Hws Hl HG Hbn Hni Hsh He HCK.
    rewrite HW in Hwc. apply guard_capture_inv in Hwc.
    destruct Hwc as [[Hc Hw] | [Hc [ty0 [a [sta [s0 [Ety [Ha [Hc' [Hw Es]]]]]]]]]].
    - apply (Hin n Hn G cur cont st s st' e ce k Hw (captures_notin _ _ Hc)); assumption.
    - subst s lty.
      assert (Hkind : is_codata cp (compile_ty ty0) = tkind p t).
      { rewrite (is_codata_compile p cp Hcod). unfold tkind. rewrite Ety. reflexivity. }
      assert (HKS : KS p cp n (tkind p t) k cont ce).
      { apply (proj2 HCK). intros x Hx. unfold Sof. apply in_cnames_inv in Hx. destruct Hx as [bb [Hbb E]]. subst x.
        apply in_cnames. apply fvs_cut. right. exact Hbb. }
      destruct (KS_cut p cp n (tkind p t) k cont ce (CMu CPrd (new_id a) s0 (compile_ty ty0)) (compile_ty ty0) Hsh HKS I)
        as [kv [Hr Hk]].
      apply sim_cstep. eapply sim_rreach; [|exact Hr].
      assert (Ei : cut_with_k (is_codata cp (compile_ty ty0)) (CMu CPrd (new_id a) s0 (compile_ty ty0)) ce kv =
                   SNext (Run s0 ((new_id a, BK kv) :: ce))).
      { simpl. rewrite Hkind. destruct (tkind p t) eqn:Ek; [|reflexivity].
        pose proof (Kk_ok p cp n k kv Hk) as Hok. destruct kv; simpl in Hok; try contradiction; reflexivity. }
      rewrite Ei.
      destruct (fresh_covar_cont p cp n G (bnd t) st a sta (compile_ty ty0) e ce k kv (tkind p t) _ (Sof (fvs s0)) Ha HG Hbn He)
        as [A [B [C [D E]]]]; [|exact Hk|].
      { intros x Hx Hne. unfold Sof in *. apply in_cnames_inv in Hx. destruct Hx as [bb [Hbb E]]. subst x.
        apply in_cnames. apply fvs_cut. left. apply fvt_mu_2; [exact Hbb|]. intros Eb. subst bb. apply Hne. reflexivity. }
      exact (Hin n Hn G cur _ sta s0 st' e _ k Hw (captures_notin _ _ Hc') Hf Hkd Hws Hl A B C I D E).
  Qed.

  Lemma fl_let_in : forall N v vty t1 t2 ty, flw p cp N t1 -> flt p cp N t1 -> flw p cp N t2 ->
    flw_in N (FLet v vty t1 t2 ty) [v]
      (fun cur => wc_let (codata_of p) v vty (cmp (codata_of p) cur false t1) (wc (codata_of p) cur false t1)
                         (wc (codata_of p) cur false t2)).
  Proof.
    intros N v vty t1 t2 ty H1 HT1 H2.
    intros n Hn G cur cont st s st' e ce k Hwc Hfree Hf Hkd Hws Hl HG Hbn Hni Hsh He HCK.
    simpl in Hf, Hkd, Hws.
    apply andb_prop in Hf. destruct Hf as [Hf1 Hf2].
    apply andb_prop in Hws. destruct Hws as [Hw1 Hw2].
    apply andb_prop in Hkd. destruct Hkd as [Hkd Hsame]. apply andb_prop in Hkd. destruct Hkd as [Hkd Hkb].
    apply andb_prop in Hkd. destruct Hkd as [Hk1 Hk2]. apply Bool.eqb_prop in Hsame. apply Bool.eqb_prop in Hkb.
    assert (Hkind : tkind p (FLet v vty t1 t2 ty) = tkind p t2) by (unfold tkind at 1; simpl; symmetry; exact Hsame).
    rewrite Hkind in *.
    set (vb := mkcb (new_id v) CPrd (compile_ty vty)) in *.
    assert (Hv_used : In v (st_used_vars st)) by (apply Hbn; simpl; left; reflexivity).
    assert (Hb1 : incl (bnd t1) (st_used_vars st)) by (intros z Hz; apply Hbn; simpl; right; apply in_or_app; left; exact Hz).
    assert (Hb2 : incl (bnd t2) (st_used_vars st)) by (intros z Hz; apply Hbn; simpl; right; apply in_or_app; right; exact Hz).
    assert (HG' : Gused (vb :: G) st).
    { intros bb [E|Hbb]; [subst bb; exists v; split; [reflexivity | exact Hv_used] | apply HG; exact Hbb]. }
    assert (Hsc : cont_cns cont) by (apply (cont_shape_cns cp (tkind p t2)); exact Hsh).
    assert (Hv_free : ~ In (new_id v) (cnames (fvt cont))) by (apply Hfree; simpl; left; reflexivity).
    (* the body, with the variable bound to b ~ b', in any environment that agrees with the extended one on its names *)
    assert (Hbody_sim : forall body st1, wc (codata_of p) cur false t2 cont st = Ok (body, st1) -> lifted_ok cp st1 ->
              (forall x, Sof (fvs body) x -> x <> new_id v -> Sof (fvs s) x) ->
              forall j, (j < n)%nat -> forall b b' env, brel p cp j b b' -> vok (is_codata cp (compile_ty vty)) b ->
              fkind b = CPrd -> agree (cnames (fvs body)) ((new_id v, b') :: ce) env ->
              sim p cp j (FEval t2 ((v, b) :: e) k) (SNext (Run body env))).
    { intros body st1 Hbody Hl1 Hnames j Hj b b' env Hb Hok Hkb' Ha.
      apply (H2 j ltac:(lia) (vb :: G) cur cont st body st1 ((v, b) :: e) env k Hbody Hf2 Hk2 Hw2 Hl1 HG' Hb2 Hni Hsh).
      - eapply erel_agree with (S := Sof (fvs body)) (ce := (new_id v, b') :: ce).
        + eapply (erel_bind1 p cp j G (Sof (fvs s)) (Sof (fvs body)) e ce v CPrd (compile_ty vty) b b'); auto.
          eapply erel_mono; [exact He | lia].
        + intros x Hx. split; [exact Hx | apply Ha; exact Hx].
      - eapply CK_transfer; [exact Hsh | exact HCK | | lia].
        intros x Hxc Hxb.
        assert (Hne : x <> new_id v) by (intros E; subst x; exact (Hv_free Hxc)).
        split; [apply Hnames; assumption|].
        rewrite (Ha x Hxb), clookup_cons.
        assert (Hx : cident_eqb (new_id v) x = false) by (apply cident_eqb_neq; congruence).
        rewrite Hx. reflexivity. }
    destruct (f_is_codata p vty) eqn:Hcd.
    - (* by name: the variable is bound to the thunk of the bound term, the body runs at once *)
      apply wc_let_inv_codata in Hwc; [|rewrite ty_is_codata_compile; exact Hcd].
      destruct Hwc as [body [st1 [pb [Hbody [Hpb Es]]]]]. subst s.
      assert (Hg1 : grows st st1) by (eapply wc_grows; exact Hbody).
      assert (Hg2 : grows st1 st') by (eapply cmp_grows; exact Hpb).
      assert (Hcdc : is_codata cp (compile_ty vty) = true) by (rewrite (is_codata_compile p cp Hcod); exact Hcd).
      destruct (HT1 n Hn G cur (compile_ty vty) st1 pb st' e ce Hpb Hf1 Hk1 Hkb Hw1 Hl) as [pv [_ [Hcut [_ [HCo _]]]]].
      { eapply Gused_grows; eauto. }
      { eapply incl_grows; eauto. }
      { exact Hcdc. }
      { eapply erel_weaken; [exact He | | apply Nat.le_refl]. apply Sof_incl. intros bb Hx. apply fvs_cut. left. exact Hx. }
      destruct n as [|n1]; [apply sim_zero|].
      eapply sim_fstep; [simpl; rewrite Hcd; reflexivity|].
      apply sim_cstep. rewrite Hcut.
      assert (Hnames : forall x, Sof (fvs body) x -> x <> new_id v ->
                Sof (fvs (CCut pb (compile_ty vty) (CMu CCns (new_id v) body (compile_ty vty)))) x).
      { intros x Hx Hne. unfold Sof in *. apply in_cnames_inv in Hx. destruct Hx as [bb [Hbb E]]. subst x.
        apply in_cnames. apply fvs_cut. right. apply fvt_mu_2; [exact Hbb|]. intros Eb. subst bb. apply Hne. reflexivity. }
      apply (Hbody_sim body st1 Hbody (lifted_ok_grows cp _ _ Hl Hg2) Hnames n1 ltac:(lia) (FbP (FvThunk t1 e)) (BP pv)).
      + simpl. eapply Co_mono; [exact HCo | lia].
      + rewrite Hcdc. exact I.
      + reflexivity.
      + apply agree_refl.
    - (* by value *)
      apply wc_let_inv in Hwc; [|rewrite ty_is_codata_compile; exact Hcd].
      destruct Hwc as [body [st1 [Hbody Hbound]]].
      set (ncont := CMu CCns (new_id v) body (compile_ty vty)) in *.
      assert (Hg1 : grows st st1) by (eapply wc_grows; exact Hbody).
      assert (Hg2 : grows st1 st') by (eapply wc_grows; exact Hbound).
      (* where the free bindings of the new continuation come from *)
      assert (Hnc_src : forall bb, In bb (fvt ncont) ->
                (inG G (nm t2) bb /\ bb <> vb) \/ (In bb (fvt cont) /\ bb <> vb)).
      { intros bb Hbb. apply fvt_mu_iff in Hbb. destruct Hbb as [Hbb Hne]. simpl in Hne. fold vb in Hne.
        destruct (ub_wc p cur t2 (vb :: G) cont st body st1 Hbody Hf2 Hw2 Hsc bb Hbb) as [Hg|Hg].
        - left. split; [|exact Hne]. eapply inG_cons_inv; eauto.
        - right. split; assumption. }
      assert (Hclean : ~ In (new_id v) (cnames (fvt ncont))).
      { intros Hin. apply in_cnames_inv in Hin. destruct Hin as [bb [Hbb E]].
        destruct (Hnc_src bb Hbb) as [[[Hg _] Hne]|[Hc _]].
        - rewrite E in Hg.
          assert (Hgv : gl (vb :: G) (new_id v) = Some vb) by (rewrite gl_cons; simpl; rewrite cident_eqb_refl; reflexivity).
          apply fvt_mu_iff in Hbb. destruct Hbb as [Hbb _].
          destruct (ub_wc p cur t2 (vb :: G) cont st body st1 Hbody Hf2 Hw2 Hsc bb Hbb) as [[Hq _]|Hq].
          + rewrite E, Hgv in Hq. injection Hq as Hq. apply Hne. symmetry. exact Hq.
          + apply Hv_free. rewrite <- E. apply in_cnames. exact Hq.
        - apply Hv_free. rewrite <- E. apply in_cnames. exact Hc. }
      assert (Hcdc : is_codata cp (compile_ty vty) = false) by (rewrite (is_codata_compile p cp Hcod); exact Hcd).
      assert (Hsh' : cont_shape cp false ncont).
      { simpl. split; [reflexivity|]. split; [reflexivity|]. split; [exact Hcdc | exact Hclean]. }
      destruct n as [|n1]; [apply sim_zero|].
      eapply sim_fstep; [simpl; rewrite Hcd; reflexivity|].
      rewrite <- Hkb in Hsh'.
      apply (H1 n1 ltac:(lia) G cur ncont st1 s st' e ce (FkLet v t2 e k) Hbound Hf1 Hk1 Hw1 Hl).
      + eapply Gused_grows; eauto.
      + eapply incl_grows; eauto.
      + intros x Hx. apply in_cnames_inv in Hx. destruct Hx as [bb [Hbb E]]. subst x.
        destruct (Hnc_src bb Hbb) as [[Hg _]|[Hc _]].
        * destruct (inG_used G _ bb st HG Hg) as [y [Ey Hy]]. exists y. split; [exact Ey|]. eapply grows_vars_incl; eauto.
        * eapply names_in_grows; [exact Hni | exact Hg1 | apply in_cnames; exact Hc].
      + exact Hsh'.
      + eapply erel_mono; [exact He | lia].
      + rewrite Hkb. split.
        * intros bb Hbb Hs. destruct (Hnc_src bb Hbb) as [[[Hg _] _]|[Hc _]].
          -- eapply erel_kind; eauto.
          -- apply (proj1 HCK); assumption.
        * intros Hall. unfold ncont. simpl.
          intros j Hj val pv Hd Hv env Ha.
          destruct j as [|j1]; [apply sim_zero|].
          eapply sim_fstep; [reflexivity|].
          assert (Hnames : forall x, Sof (fvs body) x -> x <> new_id v -> Sof (fvs s) x).
          { intros x Hx Hne. apply Hall. apply mu_body_names; assumption. }
          apply (Hbody_sim body st1 Hbody (lifted_ok_grows cp _ _ Hl Hg2) Hnames j1 ltac:(lia) (FbP val) (BP pv) env).
          -- simpl. eapply vrel_mono; [exact Hv | lia].
          -- rewrite Hcdc. exact Hd.
          -- reflexivity.
          -- exact Ha.
  Qed.
  Lemma fl_let : forall N v vty t1 t2 ty, flw p cp N t1 -> flt p cp N t1 -> flw p cp N t2 ->
    flw p cp N (FLet v vty t1 t2 ty).
  Proof.
    intros N v vty t1 t2 ty H1 HT1 H2.
    eapply fl_guard; [| |apply fl_let_in; assumption].
    - intros cur cont. rewrite wc_unfold. reflexivity.
    - reflexivity.
  Qed.

  Lemma label_core : forall N l t, flw p cp N t ->
    forall n, (n <= N)%nat -> forall G cur ty0 st s0 st' e ce k kv (S : cident -> Prop),
    wc (codata_of p) cur false t (CXVar CCns (new_id l) (compile_ty ty0)) st = Ok (s0, st') ->
    frag p t = true -> kd p t = true -> tkind p t = false ->
    ws (mkcb (new_id l) CCns (compile_ty ty0) :: G) t = true ->
    In l (st_used_vars st) ->
    lifted_ok cp st' -> Gused G st -> incl (bnd t) (st_used_vars st) ->
    erel p cp n G S e ce -> (forall x, Sof (fvs s0) x -> x <> new_id l -> S x) ->
    Kb p cp n k kv ->
    sim p cp n (FEval t ((l, FbK k) :: e) k) (SNext (Run s0 ((new_id l, BK kv) :: ce))).
  Proof.
    intros N l t H n Hn G cur ty0 st s0 st' e ce k kv S Hwc Hf Hkd Hk0 Hw Hlu Hl HG Hbn He HS Hk.
    apply (H n Hn (mkcb (new_id l) CCns (compile_ty ty0) :: G) cur _ st s0 st' _ _ k Hwc Hf Hkd Hw Hl).
    - intros bb [E|Hbb]; [subst bb; exists l; split; [reflexivity | exact Hlu] | apply HG; exact Hbb].
    - exact Hbn.
    - intros x Hx. simpl in Hx. destruct Hx as [Hx|[]]. subst x. exists l. split; [reflexivity | exact Hlu].
    - exact I.
    - eapply (erel_bind1 p cp n G S (Sof (fvs s0)) e ce l CCns (compile_ty ty0) (FbK k) (BK kv)); auto.
      simpl. exact I.
    - rewrite Hk0. apply CK_covar with (kv := kv); [|exact Hk]. rewrite clookup_cons, cident_eqb_refl. reflexivity.
  Qed.

  Lemma fl_label : forall N l t ty, flw p cp N t -> flw p cp N (FLabel l t ty) /\ flc p cp N (FLabel l t ty).
  Proof.
    intros N l t ty H. split.
    - intros n Hn G cur cont st s st' e ce k Hwc Hf Hkd Hws Hl HG Hbn Hni Hsh He HCK.
      rewrite wc_unfold in Hwc. apply wc_label_inv in Hwc. destruct Hwc as [ty0 [s0 [Ety [Hs0 Es]]]]. subst s ty.
      simpl in Hf, Hkd, Hws.
      apply andb_prop in Hf. destruct Hf as [Hdt Hf].
      apply andb_prop in Hkd. destruct Hkd as [Hkd Hkty]. apply andb_prop in Hkd. destruct Hkd as [Hkd Hk0].
      apply negb_true_iff in Hk0. apply negb_true_iff in Hkty.
      assert (Hkind : tkind p (FLabel l t (Some ty0)) = false) by (unfold tkind; simpl; exact Hkty).
      rewrite Hkind in *.
      assert (Hcd : is_codata cp (compile_ty ty0) = false).
      { rewrite (is_codata_compile p cp Hcod). unfold data_ty in Hdt. apply negb_true_iff in Hdt. exact Hdt. }
      destruct (CK_head p cp n k cont ce _ Hsh HCK) as [kv [Hh Hk]].
      { intros bb Hbb. apply Sof_in. apply fvs_cut. right. exact Hbb. }
      destruct n as [|n1]; [apply sim_zero|].
      eapply sim_fstep; [reflexivity|].
      apply sim_cstep. rewrite (cstep_cut_mu cp); [|exact Hsh]. rewrite Hh. unfold interact_mu. rewrite Hcd.
      cbv iota.
      eapply (label_core N l t H n1 ltac:(lia) G cur ty0 st s0 st' e ce k kv (Sof (fvs (CCut (CMu CPrd (new_id l) s0 (compile_ty ty0)) (compile_ty ty0) cont)))); eauto.
      + apply Hbn. simpl. left. reflexivity.
      + intros z Hz. apply Hbn. simpl. right. exact Hz.
      + eapply erel_mono; [exact He | lia].
      + intros x Hx Hne. unfold Sof in *. apply in_cnames_inv in Hx. destruct Hx as [bb [Hbb E]]. subst x.
        apply in_cnames. apply fvs_cut. left. apply fvt_mu_2; [exact Hbb|]. intros Eb. subst bb. apply Hne. reflexivity.
      + eapply Kb_mono; [exact Hk | lia].
    - intros n Hn G cur ty' st c st' e ce k m Hc Hf Hkd Hkk Hws Hl HG Hbn Hty He HK.
      rewrite cmp_unfold in Hc. apply cmp_label_inv in Hc. destruct Hc as [ty0 [s0 [Ety [Hs0 Ec]]]]. subst c ty.
      simpl in Hf, Hkd, Hws.
      apply andb_prop in Hf. destruct Hf as [Hdt Hf].
      apply andb_prop in Hkd. destruct Hkd as [Hkd Hkty]. apply andb_prop in Hkd. destruct Hkd as [Hkd Hk0].
      apply negb_true_iff in Hk0.
      assert (Hcd : is_codata cp (compile_ty ty0) = false).
      { rewrite (is_codata_compile p cp Hcod). unfold data_ty in Hdt. apply negb_true_iff in Hdt. exact Hdt. }
      destruct n as [|n1]; [apply sim_zero|].
      eapply sim_fstep; [reflexivity|].
      apply sim_cstep. simpl. rewrite Hcd.
      eapply (label_core N l t H n1 ltac:(lia) G cur ty0 st s0 st' e ce k (KRet m) (Sof (fvt (CMu CPrd (new_id l) s0 (compile_ty ty0))))); eauto.
      + apply Hbn. simpl. left. reflexivity.
      + intros z Hz. apply Hbn. simpl. right. exact Hz.
      + eapply erel_mono; [exact He | lia].
      + intros x Hx Hne. apply mu_body_names; assumption.
      + eapply Kb_mono; [exact HK | lia].
  Qed.

  Lemma fl_goto : forall N l t ty, flw p cp N t -> flw p cp N (FGoto l t ty).
  Proof.
    intros N l t ty H.
    intros n Hn G cur cont st s st' e ce k Hwc Hf Hkd Hws Hl HG Hbn Hni Hsh He HCK.
    rewrite wc_unfold in Hwc. apply wc_goto_inv in Hwc. destruct Hwc as [ty0 [Ety Hs]].
    simpl in Hf, Hkd, Hws.
    apply andb_prop in Hws. destruct Hws as [Hw1 Hw2].
    apply andb_prop in Hkd. destruct Hkd as [Hkd Hk0]. apply negb_true_iff in Hk0.
    apply var_ok_inv in Hw1. destruct Hw1 as [ty1 [E1 Hg]]. rewrite Ety in E1. injection E1 as E1. subst ty1.
    destruct n as [|n1]; [apply sim_zero|].
    destruct (flookup e l) as [[val|k']|] eqn:El;
      [eapply sim_stuck; simpl; rewrite El; reflexivity | | eapply sim_stuck; simpl; rewrite El; reflexivity].
    eapply sim_fstep; [simpl; rewrite El; reflexivity|].
    apply (H n1 ltac:(lia) G cur _ st s st' e ce k' Hs Hf Hkd Hw2 Hl HG).
    - intros z Hz. apply Hbn. exact Hz.
    - intros x Hx. simpl in Hx. destruct Hx as [Hx|[]]. subst x.
      destruct (HG _ (gl_In _ _ _ Hg)) as [y [Ey Hy]]. exists y. split; [exact Ey | exact Hy].
    - exact I.
    - eapply erel_mono; [exact He | lia].
    - (* the target covariable means the continuation found in the source environment *)
      rewrite Hk0.
      assert (Hcov : Sof (fvs s) (new_id l) -> exists kv, clookup ce (new_id l) = Some (BK kv) /\ Kb p cp (S n1) k' kv).
      { intros Hs0. destruct (erel_covar p cp (S n1) G _ e ce l _ He Hg Hs0) as [k0 [kv0 [E1 [E2 E3]]]].
        rewrite El in E1. injection E1 as E1. subst k0. eauto. }
      split.
      + intros bb Hbb Hs0. apply fvt_var in Hbb. subst bb. simpl in *. destruct (Hcov Hs0) as [kv [E2 _]].
        exists (BK kv). split; [exact E2 | reflexivity].
      + intros Hall. destruct (Hcov (Hall _ (or_introl eq_refl))) as [kv [E2 E3]].
        intros ce' Ha. exists kv. split; [|eapply Kb_mono; [exact E3 | lia]].
        simpl. rewrite (Ha (new_id l)); [rewrite E2; reflexivity | simpl; left; reflexivity].
  Qed.
End FLg.
