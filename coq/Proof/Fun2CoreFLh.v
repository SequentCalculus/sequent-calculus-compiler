(* Proof/Fun2CoreFLh  -  the fundamental lemma: calls of top-level definitions (any number of
   definitions, recursion: induction on the source fuel), constructors, case, new, destructor calls; and the
   assembly [fl_all]: for every fuel bound N and every term of the fragment, flw, flc and flt. *)
From Coq Require Import List ZArith NArith String Bool Lia Wf_nat.
From SCC Require Import Proof.CoreInd.
From SCC Require Import Base.Sexp Lang.SynUtil Lang.FunSyn Lang.FunTy Lang.CoreSyn.
From SCC Require Import Sem.AxSem Sem.CoreSem Sem.FunSem Model.Fun2Core.
From SCC Require Import Proof.Fun2CoreProof Proof.Fun2CoreSim Proof.Fun2CoreTfv Proof.Fun2CoreInv Proof.Fun2CoreUB
     Proof.Fun2CoreRel Proof.Fun2CoreFLa Proof.Fun2CoreFLb Proof.Fun2CoreFLc Proof.Fun2CoreFLd Proof.Fun2CoreFLe
     Proof.Fun2CoreFLf Proof.Fun2CoreFLg.
Import ListNotations.
Open Scope string_scope.
Open Scope list_scope.


Section FLh.
  Variable p : fcprog.
  Variable cp : cprog.
  Hypothesis Hcod : cpcodata cp = codata_of p.
  Hypothesis Hdefs : forall f d, ffind_def p f = Some d -> (f <> "main" \/ calls_main_prog p = true) -> callee_ok p cp d.

  Lemma fl_call : forall N f args ret,
    (forall N', (N' < N)%nat -> forall t, flw p cp N' t) -> Forall (flc p cp N) args -> Forall (flt p cp N) args ->
    flw p cp N (FCall f args ret).
  Proof.
    intros N f args ret IHN HA HT.
    intros n Hn G cur cont st s st' e ce k Hwc Hf Hkd Hws Hl HG Hbn Hni Hsh He HCK.
    rewrite wc_unfold in Hwc. apply wc_call_inv in Hwc. destruct Hwc as [args' [ret0 [Hargs [Eret Es]]]]. subst s.
    simpl in Hf, Hkd, Hws.
    apply andb_prop in Hf. destruct Hf as [Hf Hfa]. apply andb_prop in Hf. destruct Hf as [Hnm Hck].
    assert (Hnm' : f <> "main" \/ calls_main_prog p = true).
    { apply orb_prop in Hnm. destruct Hnm as [Hnm|Hnm]; [left; apply negb_true_iff in Hnm; apply String.eqb_neq in Hnm; exact Hnm | right; exact Hnm]. }
    clear Hnm. rename Hnm' into Hnm.
    change (tkind p (FCall f args ret)) with (f_is_codata_o p ret) in *.
    assert (HKS : KS p cp n (f_is_codata_o p ret) k cont ce).
    { apply (proj2 HCK). intros x Hx. unfold Sof. apply in_cnames_inv in Hx. destruct Hx as [bb [Hbb E]]. subst x.
      apply in_cnames. apply (proj2 (fvs_call _ _ _ _)). apply fva_app. right. apply fva_cons. left. exact Hbb. }
    destruct n as [|n1]; [apply sim_zero|].
    eapply sim_fstep; [reflexivity|]. apply sim_cstep. simpl. rewrite start_args_eq.
    apply (args_sim p cp Hcod N args HA HT n1 ltac:(lia) false G cur st args' st' e ce [CConsumer cont]
             (AfCall f) (FinCall (new_id f)) k [] [] Hargs Hfa Hkd).
    - intros E. discriminate E.
    - exact Hws.
    - exact Hl.
    - exact HG.
    - exact Hbn.
    - eapply erel_weaken; [exact He | | lia]. apply Sof_incl. intros bb Hx.
      apply (proj2 (fvs_call _ _ _ _)). apply fva_app. left. exact Hx.
    - intros j Hj new new' Hnew Hkinds.
      apply (call_finish p cp Hcod Hdefs N IHN j ltac:(lia) f args ret e ce k cont new new' Hnm Hck Hnew Hkinds Hsh).
      eapply KS_mono; [exact HKS | lia].
  Qed.

  Lemma darg_props : forall args, forallb (darg_ok p) args = true ->
    forallb (arg_ok p) args = true /\ forallb (fun y => negb (is_cns_var y) && negb (tkind p y)) args = true.
  Proof.
    intros args H. split; [apply darg_arg_ok; exact H|]. rewrite forallb_forall in *. intros y Hy.
    destruct (darg_ok_inv p y (H y Hy)) as [Hc [_ [Hk _]]]. rewrite Hc, Hk. reflexivity.
  Qed.

  Lemma ctor_core : forall N x args, Forall (flc p cp N) args -> Forall (flt p cp N) args ->
    forall n, (n <= N)%nat -> forall G cur st args' st' e ce k m,
    subst_with (fun y => cmp (codata_of p) cur false y) args st = Ok (args', st') ->
    forallb (darg_ok p) args = true -> forallb (arg_kd p) args = true ->
    forallb (ws_arg G) args = true ->
    lifted_ok cp st' -> Gused G st -> incl (flat_map bnd args) (st_used_vars st) ->
    erel p cp n G (Sof (fva args')) e ce ->
    Kb p cp n k (KRet m) ->
    sim p cp n (FArgs [] args e (AfCtor x) k) (cargs_res cp [] args' ce (FinXtorP (new_id x) m)).
  Proof.
    intros N x args HA HT n Hn G cur st args' st' e ce k m Hargs Hda Hkd Hws Hl HG Hbn He HK.
    destruct (darg_props args Hda) as [Hfa Hpo].
    rewrite <- (app_nil_r args').
    apply (args_sim p cp Hcod N args HA HT n Hn true G cur st args' st' e ce [] (AfCtor x) (FinXtorP (new_id x) m) k [] []
             Hargs Hfa Hkd (fun _ => Hpo) Hws Hl HG Hbn He).
    intros j Hj new new' Hnew Hkinds.
    destruct j as [|j1]; [apply sim_zero|].
    eapply sim_fstep; [simpl; rewrite rev_append_nil_twice; reflexivity|].
    unfold cargs_res. simpl finish_args. rewrite rev_append_nil_twice.
    eapply Kb_ret; [exact HK | lia | |].
    - apply dval_ctor. clear -Hkinds. induction Hkinds as [|b y r r' [Hb _] Hr IH]; constructor; [exact Hb | exact IH].
    - apply vrel_ctor. exists new'. split; [reflexivity|]. eapply brels_mono; [exact Hnew | lia].
  Qed.

  Lemma fl_ctor : forall N x args ty, Forall (flc p cp N) args -> Forall (flt p cp N) args ->
    flw p cp N (FCtor x args ty) /\ flc p cp N (FCtor x args ty).
  Proof.
    intros N x args ty HA HT. split.
    - intros n Hn G cur cont st s st' e ce k Hwc Hf Hkd Hws Hl HG Hbn Hni Hsh He HCK.
      rewrite wc_unfold in Hwc. apply wc_ctor_inv in Hwc. destruct Hwc as [args' [ty0 [Hargs [Ety Es]]]]. subst s.
      simpl in Hf, Hkd, Hws. apply andb_prop in Hkd. destruct Hkd as [Hkd Hkty]. apply negb_true_iff in Hkty.
      assert (Hkind : tkind p (FCtor x args ty) = false) by (unfold tkind; simpl; exact Hkty).
      rewrite Hkind in *.
      destruct n as [|n1]; [apply sim_zero|].
      eapply sim_fstep; [reflexivity|]. apply sim_cstep. simpl. rewrite start_args_eq.
      apply (ctor_core N x args HA HT n1 ltac:(lia) G cur st args' st' e ce k (MCutK cont ce) Hargs Hf Hkd Hws Hl HG Hbn).
      + eapply erel_weaken; [exact He | | lia]. apply Sof_incl. intros bb Hx. apply fvs_cut. left. exact Hx.
      + eapply Kb_mono; [eapply (CK_mcutk p cp (S n1)); eauto | lia].
        intros bb Hbb. apply Sof_in. apply fvs_cut. right. exact Hbb.
    - intros n Hn G cur ty' st c st' e ce k m Hc Hf Hkd Hk0 Hws Hl HG Hbn Hty He HK.
      rewrite cmp_unfold in Hc. apply cmp_ctor_inv in Hc. destruct Hc as [args' [ty0 [Hargs [Ety Ec]]]]. subst c.
      simpl in Hf, Hkd, Hws. apply andb_prop in Hkd. destruct Hkd as [Hkd Hkty].
      destruct n as [|n1]; [apply sim_zero|].
      eapply sim_fstep; [reflexivity|]. apply sim_cstep. simpl. rewrite start_args_eq.
      apply (ctor_core N x args HA HT n1 ltac:(lia) G cur st args' st' e ce k m Hargs Hf Hkd Hws Hl HG Hbn).
      + eapply erel_mono; [exact He | lia].
      + eapply Kb_mono; [exact HK | lia].
  Qed.

  Lemma fl_case_in : forall N scrut targs cls ty,
    flw p cp N scrut -> Forall (fun c => flw p cp N (clause_body c)) cls ->
    flw_in p cp N (FCase scrut targs cls ty)
      (flat_map (fun c => match c with FClause _ _ _ ctx _ => fvars ctx end) cls)
      (fun cur => wc_case cur (wc (codata_of p) cur false scrut) (fterm_type scrut) (List.length cls)
                    (fun cont' => clauses_with (fun b => wc (codata_of p) cur false b) cont' cls)).
  Proof.
    intros N scrut targs cls ty Hscrut Hcls.
    intros n Hn G cur cont st s st' e ce k Hwc Hfree Hf Hkd Hws Hl HG Hbn Hni Hsh He HCK.
    apply wc_case_inv in Hwc.
    destruct Hwc as [cont1 [st0 [cls' [st1 [sty0 [Hshare [Hclauses [Esty Hwscrut]]]]]]]].
    simpl in Hf, Hkd, Hws.
    apply andb_prop in Hf. destruct Hf as [Hf Hfc]. apply andb_prop in Hf. destruct Hf as [Hfs Hdt].
    apply andb_prop in Hws. destruct Hws as [Hws Hwcl].
    apply andb_prop in Hkd. destruct Hkd as [Hkd Hkcl]. apply andb_prop in Hkd. destruct Hkd as [Hks Hkty].
    apply negb_true_iff in Hkty.
    assert (Hkind : tkind p (FCase scrut targs cls ty) = false) by (unfold tkind; simpl; exact Hkty).
    rewrite Hkind in *.
    assert (Hkscrut : tkind p scrut = false).
    { unfold tkind, data_ty in *. rewrite Esty in *. simpl. apply negb_true_iff in Hdt. exact Hdt. }
    set (kcont := CXCase CCns cls' (compile_ty sty0)) in *.
    assert (Hg2 : grows st1 st') by (eapply wc_grows; exact Hwscrut).
    assert (Hg1 : grows st0 st1) by (eapply clauses_with_grows; exact Hclauses).
    assert (Lst1 : lifted_ok cp st1) by (eapply lifted_ok_grows; [exact Hl | exact Hg2]).
    assert (Lst0 : lifted_ok cp st0) by (eapply lifted_ok_grows; [exact Lst1 | exact Hg1]).
    destruct (share_or_keep_CK p cp n cur (Nat.leb (List.length cls) 1 || cont_is_small cont) cont st cont1 st0 k ce
                (Sof (fvs s)) Hshare) as [HCK1 [Hsh1 [Hg0 Hsub]]]; auto.
    { intros E. apply orb_false_iff in E. tauto. }
    assert (G1 : grows st st1) by (eapply grows_trans; [exact Hg0 | exact Hg1]).
    assert (Hsc1 : cont_cns cont1) by (apply (cont_shape_cns cp false); exact Hsh1).
    assert (HB : Forall (fun c => ubw p cur (clause_body c)) cls).
    { apply Forall_forall. intros c _. apply (ub_wc p cur). }
    assert (Hsrc : forall bb, In bb (fvt kcont) -> inG G (flat_map cl_nm cls) bb \/ In bb (fvt cont)).
    { intros bb Hbb. apply fvt_xcase in Hbb.
      destruct (ub_clauses p cur G cont1 cls HB Hsc1 _ _ _ Hclauses Hfc Hwcl bb Hbb) as [Hg|Hg]; [left; exact Hg | right; apply Hsub; exact Hg]. }
    assert (Hcd : is_codata cp (compile_ty sty0) = false).
    { rewrite (is_codata_compile p cp Hcod). unfold data_ty in Hdt. rewrite Esty in Hdt. apply negb_true_iff in Hdt. exact Hdt. }
    assert (Hbs : incl (bnd scrut) (st_used_vars st)) by (intros z Hz; apply Hbn; simpl; apply in_or_app; left; exact Hz).
    destruct n as [|n1]; [apply sim_zero|].
    eapply sim_fstep; [reflexivity|].
    apply (Hscrut n1 ltac:(lia) G cur kcont st1 s st' e ce (FkCase cls e k) Hwscrut Hfs Hks Hws Hl).
    - eapply Gused_grows; eauto.
    - eapply incl_grows; eauto.
    - intros x Hx. apply in_cnames_inv in Hx. destruct Hx as [bb [Hbb E]]. subst x.
      destruct (Hsrc bb Hbb) as [Hg|Hc].
      + destruct (inG_used G _ bb st HG Hg) as [y [Ey Hy]]. exists y. split; [exact Ey|]. eapply grows_vars_incl; eauto.
      + eapply names_in_grows; [exact Hni | exact G1 | apply in_cnames; exact Hc].
    - rewrite Hkscrut. simpl. split; [reflexivity | exact Hcd].
    - eapply erel_mono; [exact He | lia].
    - rewrite Hkscrut. split.
      + intros bb Hbb Hs. destruct (Hsrc bb Hbb) as [[Hg _]|Hc].
        * eapply erel_kind; eauto.
        * apply (proj1 HCK); assumption.
      + intros Hall ce' Ha. exists (KCase cls' ce'). split; [reflexivity|].
        apply (Kb_intro p cp). intros j Hj v pv Hd Hv.
        destruct j as [|j1]; [apply sim_zero|].
        destruct v as [z|tag fields|cls0 e0|t0 e0]; try contradiction;
          [eapply sim_stuck; reflexivity|].
        apply vrel_ctor in Hv. destruct Hv as [fields' [Epv Hfields]]. subst pv.
        apply dval_ctor in Hd.
        pose proof (clauses_find p cur cont1 cls st0 cls' st1 Hclauses tag) as Hfind.
        destruct (ffind_clause cls tag) as [[pl x names ctx body]|] eqn:Efc;
          [|eapply sim_stuck; simpl; unfold fselect; rewrite Efc; reflexivity].
        destruct Hfind as [body' [sta [stb [Ecf [Hwb [Hga [Hgb [Hfvc Hin]]]]]]]].
        destruct (fbind (fvars ctx) fields e) as [e1|] eqn:Ebind;
          [|eapply sim_stuck; simpl; unfold fselect; rewrite Efc; simpl; rewrite Ebind; reflexivity].
        eapply sim_fstep; [simpl; unfold fselect; rewrite Efc; simpl; rewrite Ebind; reflexivity|].
        (* what the fragment says about this clause *)
        rewrite forallb_forall in Hfc, Hwcl, Hkcl.
        specialize (Hfc _ Hin). specialize (Hwcl _ Hin). specialize (Hkcl _ Hin).
        simpl in Hfc, Hwcl, Hkcl.
        apply andb_prop in Hfc. destruct Hfc as [Hfc Hfb]. apply andb_prop in Hfc. destruct Hfc as [_ Hprd].
        apply andb_prop in Hkcl. destruct Hkcl as [Hkb Hkb0]. apply negb_true_iff in Hkb0.
        assert (Hctx_bnd : forall y, In y (fvars ctx) -> In y (bnd (FCase scrut targs cls ty))).
        { intros y Hy. simpl. apply in_or_app. right. apply in_flat_map.
          exists (FClause pl x names ctx body). split; [exact Hin | apply in_or_app; left; exact Hy]. }
        assert (Hbody_bnd : forall y, In y (bnd body) -> In y (bnd (FCase scrut targs cls ty))).
        { intros y Hy. simpl. apply in_or_app. right. apply in_flat_map.
          exists (FClause pl x names ctx body). split; [exact Hin | apply in_or_app; right; exact Hy]. }
        pose proof (in_cvars_compile_ctx ctx) as Hcv.
        assert (Hout : forall x0, Sof (fvs body') x0 -> ~ In x0 (cvars (compile_ctx ctx)) -> In x0 (cnames (fvc cls'))).
        { intros x0 Hx0 Hn0. unfold Sof in Hx0. apply in_cnames_inv in Hx0. destruct Hx0 as [bb [Hbb E]]. subst x0.
          apply in_cnames. apply Hfvc; [exact Hbb|]. intros Hc. apply Hn0. unfold cvars. apply in_map. exact Hc. }
        destruct (clause_env p cp Hcod j1 G ctx fields fields' e e1 ce' (Sof (fvs body'))) as [ce1 [Hcb [Hr Hlk]]];
          [eapply brels_mono; [exact Hfields | lia] | exact Hd | exact Hprd | exact Ebind | |].
        { eapply erel_agree with (S := Sof (fvs s)) (ce := ce).
          - eapply erel_mono; [exact He | lia].
          - intros x0 [Hx0 Hn0]. pose proof (Hout x0 Hx0 Hn0) as Hc0. split; [apply Hall; exact Hc0 | apply Ha; exact Hc0]. }
        simpl. unfold select. rewrite Ecf. cbn [cl_ctx cl_body]. rewrite Hcb.
        rewrite Forall_forall in Hcls. specialize (Hcls _ Hin). simpl in Hcls.
        rewrite <- Hkb0 in Hsh1, HCK1.
        apply (Hcls j1 ltac:(lia) (compile_ctx ctx ++ G) cur cont1 sta body' stb e1 ce1 k Hwb Hfb Hkb Hwcl).
        * eapply lifted_ok_grows; [exact Lst1 | exact Hgb].
        * intros bb Hbb. apply in_app_or in Hbb. destruct Hbb as [Hbb|Hbb].
          -- destruct (Hcv (cbvar bb) (in_map cbvar _ _ Hbb)) as [y [Ey Hy]]. exists y. split; [exact Ey|].
             eapply grows_vars_incl; [eapply grows_trans; [exact Hg0 | exact Hga]|]. apply Hbn. apply Hctx_bnd. exact Hy.
          -- eapply Gused_grows; [exact HG | eapply grows_trans; [exact Hg0 | exact Hga] | exact Hbb].
        * eapply incl_grows; [|eapply grows_trans; [exact Hg0 | exact Hga]]. intros y Hy. apply Hbn. apply Hbody_bnd. exact Hy.
        * intros x0 Hx0. apply in_cnames_inv in Hx0. destruct Hx0 as [bb [Hbb E]]. subst x0.
          eapply names_in_grows; [exact Hni | eapply grows_trans; [exact Hg0 | exact Hga] | apply in_cnames; apply Hsub; exact Hbb].
        * exact Hsh1.
        * exact Hr.
        * eapply CK_transfer; [exact Hsh1 | exact HCK1 | | lia].
          intros x0 Hxc Hxb.
          assert (Hn0 : ~ In x0 (cvars (compile_ctx ctx))).
          { intros Hc0. destruct (Hcv x0 Hc0) as [y [Ey Hy]]. subst x0.
            apply (Hfree y).
            { apply in_flat_map. exists (FClause pl x names ctx body). split; [exact Hin | exact Hy]. }
            apply in_cnames_inv in Hxc. destruct Hxc as [bb [Hbb E]]. rewrite <- E. apply in_cnames. apply Hsub. exact Hbb. }
          pose proof (Hout x0 Hxb Hn0) as Hc0.
          split; [apply Hall; exact Hc0|]. rewrite (Hlk x0 Hn0). apply Ha. exact Hc0.
  Qed.
  Lemma fl_case : forall N scrut targs cls ty,
    flw p cp N scrut -> Forall (fun c => flw p cp N (clause_body c)) cls ->
    flw p cp N (FCase scrut targs cls ty).
  Proof.
    intros N scrut targs cls ty Hscrut Hcls.
    eapply (fl_guard p cp Hcod); [| |apply fl_case_in; assumption].
    - intros cur cont. rewrite wc_unfold. reflexivity.
    - reflexivity.
  Qed.

  Lemma coclauses_find : forall cur cls st cls' st',
    coclauses_with (fun b => wc (codata_of p) cur false b) cls st = Ok (cls', st') ->
    forall tag,
    match ffind_clause cls tag with
    | None => cfind_clause cls' (new_id tag) = None
    | Some (FClause pl x names ctx body) =>
        exists ty0 a sta sta' body' stb,
          cfind_clause cls' (new_id tag) =
            Some (CClause CPrd (new_id x) (compile_ctx ctx ++ [mkcb (new_id a) CCns (compile_ty ty0)]) body') /\
          fterm_type body = Some ty0 /\ fresh_covar sta = Ok (a, sta') /\
          wc (codata_of p) cur false body (CXVar CCns (new_id a) (compile_ty ty0)) sta' = Ok (body', stb) /\
          grows st sta /\ grows stb st' /\
          (forall bb, In bb (fvs body') -> ~ In bb (compile_ctx ctx ++ [mkcb (new_id a) CCns (compile_ty ty0)]) -> In bb (fvc cls')) /\
          In (FClause pl x names ctx body) cls /\ x = tag
    end.
  Proof.
    intros cur. induction cls as [|c r IH]; intros st cls' st' H tag.
    - simpl in H. apply mret_inv in H. destruct H; subst. reflexivity.
    - destruct c as [pl x names ctx body]. apply coclauses_with_cons_inv in H.
      destruct H as [c' [st1 [rest [Hc [Hrest El]]]]]. subst cls'.
      apply compile_coclause_inv in Hc. destruct Hc as [ty0 [a [sta' [body' [Ety [Hfr [Hbody Ec]]]]]]]. subst c'.
      assert (Hg0 : grows st sta') by (eapply mgrows_fresh_covar; exact Hfr).
      assert (Hg1 : grows sta' st1) by (eapply wc_grows; exact Hbody).
      assert (Hg2 : grows st1 st') by (eapply coclauses_with_grows; exact Hrest).
      unfold ffind_clause, cfind_clause. simpl. rewrite cid_eqb_new_id.
      destruct (String.eqb x tag) eqn:E.
      + exists ty0, a, st, sta', body', st1. split; [reflexivity|]. split; [exact Ety|]. split; [exact Hfr|].
        split; [exact Hbody|]. split; [apply grows_refl|]. split; [exact Hg2|]. split; [|split; [left; reflexivity | apply String.eqb_eq; exact E]].
        intros bb Hb Hn. apply fvc_cons_body; assumption.
      + specialize (IH _ _ _ Hrest tag). unfold ffind_clause, cfind_clause in IH.
        destruct (find (fun c => String.eqb (fcl_xtor c) tag) r) as [[pl0 x0 names0 ctx0 body0]|].
        * destruct IH as [ty1 [a1 [sta1 [sta1' [b' [stb [E1 [E2 [E3 [E4 [E5 [E6 [E7 [E8 E9]]]]]]]]]]]]]].
          exists ty1, a1, sta1, sta1', b', stb.
          split; [exact E1|]. split; [exact E2|]. split; [exact E3|]. split; [exact E4|].
          split; [eapply grows_trans; [eapply grows_trans; [exact Hg0 | exact Hg1] | exact E5]|]. split; [exact E6|].
          split; [|split; [right; exact E8 | exact E9]].
          intros bb Hb Hn. apply fvc_cons_tail. apply E7; assumption.
        * exact IH.
  Qed.

  Definition coclauses_kd (cls : list fclause) : bool :=
    forallb (fun c => match c with FClause _ x _ _ body => kd p body && Bool.eqb (tkind p body) (dkind p x) end) cls.

  Lemma new_core : forall N cls, Forall (fun c => flw p cp N (clause_body c)) cls ->
    forall n, (n <= N)%nat -> forall G cur st cls' st' e ce,
    coclauses_with (fun b => wc (codata_of p) cur false b) cls st = Ok (cls', st') ->
    clauses_frag p cls = true -> coclauses_kd cls = true ->
    clauses_ws G cls = true ->
    lifted_ok cp st' -> Gused G st -> incl (flat_map cl_bnd cls) (st_used_vars st) ->
    erel p cp n G (Sof (fvc cls')) e ce ->
    Co p cp n (FvNew cls e) (PCocase cls' ce).
  Proof.
    intros N cls Hcls n Hn G cur st cls' st' e ce Hco Hfc Hkc Hwc Hl HG Hbn He.
    apply Co_intro. intros j Hj x args args' k kv Hargs Hdf Hk.
    pose proof (coclauses_find cur cls st cls' st' Hco x) as Hfind.
    destruct (ffind_clause cls x) as [[pl x0 names ctx body]|] eqn:Efc;
      [|eapply sim_stuck; simpl; unfold fselect; rewrite Efc; reflexivity].
    destruct Hfind as [ty0 [a [sta [sta' [body' [stb [Ecf [Ety [Hfr [Hwb [Hga [Hgb [Hfvc [Hin Ex]]]]]]]]]]]]]]. subst x0.
    destruct (fbind (fvars ctx) args e) as [e1|] eqn:Ebind;
      [|eapply sim_stuck; simpl; unfold fselect; rewrite Efc; simpl; rewrite Ebind; reflexivity].
    eapply sim_fstep; [simpl; unfold fselect; rewrite Efc; simpl; rewrite Ebind; reflexivity|].
    unfold clauses_frag, clauses_ws, coclauses_kd in *. rewrite forallb_forall in Hfc, Hwc, Hkc.
    specialize (Hfc _ Hin). specialize (Hwc _ Hin). specialize (Hkc _ Hin).
    simpl in Hfc, Hwc, Hkc.
    apply andb_prop in Hfc. destruct Hfc as [Hfc Hfb]. apply andb_prop in Hfc. destruct Hfc as [_ Hprd].
    apply andb_prop in Hkc. destruct Hkc as [Hkb Hkx]. apply Bool.eqb_prop in Hkx.
    destruct (fresh_in_vars_inv _ _ _ _ Hfr) as [Hfresh [Hused _]].
    assert (Hgfr : grows sta sta') by (eapply mgrows_fresh_covar; exact Hfr).
    assert (Hgall : grows st sta') by (eapply grows_trans; [exact Hga | exact Hgfr]).
    set (ab := mkcb (new_id a) CCns (compile_ty ty0)) in *.
    assert (Hctx_bnd : forall y, In y (fvars ctx) -> In y (st_used_vars st)).
    { intros y Hy. apply Hbn. apply in_flat_map. exists (FClause pl x names ctx body). split; [exact Hin | simpl; apply in_or_app; left; exact Hy]. }
    assert (Hbody_bnd : forall y, In y (bnd body) -> In y (st_used_vars st)).
    { intros y Hy. apply Hbn. apply in_flat_map. exists (FClause pl x names ctx body). split; [exact Hin | simpl; apply in_or_app; right; exact Hy]. }
    pose proof (in_cvars_compile_ctx ctx) as Hcv.
    assert (Ha_ctx : ~ In (new_id a) (cvars (compile_ctx ctx))).
    { intros Hc0. destruct (Hcv _ Hc0) as [y [Ey Hy]]. apply new_id_inj in Ey. subst y.
      apply Hfresh. eapply grows_vars_incl; [exact Hga|]. apply Hctx_bnd. exact Hy. }
    assert (Hout : forall x0, Sof (fvs body') x0 -> ~ In x0 (cvars (compile_ctx ctx)) -> x0 <> new_id a -> In x0 (cnames (fvc cls'))).
    { intros x0 Hx0 Hn0 Hna. unfold Sof in Hx0. apply in_cnames_inv in Hx0. destruct Hx0 as [bb [Hbb E]]. subst x0.
      apply in_cnames. apply Hfvc; [exact Hbb|]. intros Hc. apply in_app_or in Hc. destruct Hc as [Hc|[Hc|[]]].
      - apply Hn0. unfold cvars. apply in_map. exact Hc.
      - apply Hna. subst bb. reflexivity. }
    destruct (clause_env p cp Hcod j G ctx args args' e e1 ((new_id a, BK kv) :: ce) (Sof (fvs body'))) as [ce1 [Hcb [Hr Hlk]]];
      [exact Hargs | exact Hdf | exact Hprd | exact Ebind | |].
    { eapply erel_gen with (S := Sof (fvc cls')).
      - eapply erel_mono; [exact He | lia].
      - intros bb Hbb E. destruct (HG bb Hbb) as [y [Ey Hy]]. rewrite Ey in E. apply new_id_inj in E. subst y.
        apply Hfresh. eapply grows_vars_incl; [exact Hga | exact Hy].
      - intros x0 [Hx0 Hn0] Hna. apply Hout; assumption. }
    simpl. unfold select. rewrite Ecf. cbn [cl_ctx cl_body].
    unfold cvars. rewrite map_app. simpl map. fold (cvars (compile_ctx ctx)).
    rewrite (cbind_snoc _ _ _ _ _ _ Hcb).
    rewrite Forall_forall in Hcls. specialize (Hcls _ Hin). simpl in Hcls.
    apply (Hcls j ltac:(lia) (compile_ctx ctx ++ G) cur (CXVar CCns (new_id a) (compile_ty ty0)) sta' body' stb e1 ce1 k Hwb Hfb Hkb Hwc).
    - eapply lifted_ok_grows; [exact Hl | exact Hgb].
    - intros bb Hbb. apply in_app_or in Hbb. destruct Hbb as [Hbb|Hbb].
      + destruct (Hcv (cbvar bb) (in_map cbvar _ _ Hbb)) as [y [Ey Hy]]. exists y. split; [exact Ey|].
        eapply grows_vars_incl; [exact Hgall|]. apply Hctx_bnd. exact Hy.
      + eapply Gused_grows; [exact HG | exact Hgall | exact Hbb].
    - intros y Hy. eapply grows_vars_incl; [exact Hgall|]. apply Hbody_bnd. exact Hy.
    - intros x0 Hx0. simpl in Hx0. destruct Hx0 as [Hx0|[]]. subst x0. exists a. split; [reflexivity|]. rewrite Hused. left. reflexivity.
    - exact I.
    - exact Hr.
    - apply CK_covar with (kv := kv).
      + rewrite (Hlk _ Ha_ctx). rewrite clookup_cons, cident_eqb_refl. reflexivity.
      + rewrite Hkx. exact Hk.
  Qed.

  Lemma fl_new : forall N cls ty, Forall (fun c => flw p cp N (clause_body c)) cls ->
    flw p cp N (FNew cls ty) /\ flc p cp N (FNew cls ty) /\ flt p cp N (FNew cls ty).
  Proof.
    intros N cls ty Hcls.
    assert (Hcore : forall n, (n <= N)%nat -> forall G cur ty' st c st' e ce,
              cmp (codata_of p) cur false (FNew cls ty) ty' st = Ok (c, st') ->
              frag p (FNew cls ty) = true -> kd p (FNew cls ty) = true -> ws G (FNew cls ty) = true ->
              lifted_ok cp st' -> Gused G st -> incl (bnd (FNew cls ty)) (st_used_vars st) ->
              erel p cp n G (Sof (fvt c)) e ce ->
              exists cls' cty, c = CXCase CPrd cls' cty /\ Co p cp n (FvNew cls e) (PCocase cls' ce)).
    { intros n Hn G cur ty' st c st' e ce Hc Hf Hkd Hws Hl HG Hbn He.
      rewrite cmp_unfold in Hc. apply cmp_new_inv in Hc. destruct Hc as [cls' [ty0 [Hco [Ety Ec]]]]. subst c.
      simpl in Hf, Hkd, Hws. apply andb_prop in Hkd. destruct Hkd as [_ Hkc].
      exists cls', (compile_ty ty0). split; [reflexivity|].
      eapply (new_core N cls Hcls n Hn G cur st cls' st' e ce); eauto. }
    split; [|split].
    - intros n Hn G cur cont st s st' e ce k Hwc Hf Hkd Hws Hl HG Hbn Hni Hsh He HCK.
      rewrite wc_unfold in Hwc. apply wc_new_inv in Hwc. destruct Hwc as [cls0 [ty0 [Hco0 [Ety0 Es]]]]. subst s ty.
      destruct (Hcore n Hn G cur CI64 st (CXCase CPrd cls0 (compile_ty ty0)) st' e ce) as [cls' [cty [Ec HCo]]]; auto.
      { rewrite cmp_unfold. unfold cmp_new, mbind. rewrite Hco0. reflexivity. }
      { eapply erel_weaken; [exact He | | apply Nat.le_refl]. apply Sof_incl. intros bb Hx. apply fvs_cut. left. exact Hx. }
      injection Ec as Ec1 Ec2. subst cls0 cty.
      assert (HKS : KS p cp n (tkind p (FNew cls (Some ty0))) k cont ce).
      { eapply CK_KS; [exact HCK|]. intros bb Hbb. apply Sof_in. apply fvs_cut. right. exact Hbb. }
      destruct (KS_cut p cp n _ k cont ce (CXCase CPrd cls' (compile_ty ty0)) (compile_ty ty0) Hsh HKS I) as [kv [Hr Hk]].
      destruct n as [|n1]; [apply sim_zero|].
      eapply sim_fstep; [reflexivity|].
      apply sim_cstep. eapply sim_rreach; [|exact Hr]. simpl.
      simpl in Hkd. apply andb_prop in Hkd. destruct Hkd as [Hkty _].
      eapply Kk_use; [exact Hk | lia | | ].
      + unfold tkind. simpl. rewrite Hkty. exact I.
      + simpl. eapply Co_mono; [exact HCo | lia].
    - intros n Hn G cur ty' st c st' e ce k m Hc Hf Hkd Hk0 Hws Hl HG Hbn Hty He HK.
      simpl in Hkd. apply andb_prop in Hkd. destruct Hkd as [Hkty _]. unfold tkind in Hk0. simpl in Hk0. congruence.
    - intros n Hn G cur ty' st c st' e ce Hc Hf Hkd Hk1 Hws Hl HG Hbn Hty He.
      destruct (Hcore n Hn G cur ty' st c st' e ce Hc Hf Hkd Hws Hl HG Hbn He) as [cls' [cty [Ec HCo]]]. subst c.
      exists (PCocase cls' ce). split; [|split; [|split; [|split]]].
      + intros m. reflexivity.
      + intros v s0 ty1. reflexivity.
      + intros cd tag vals. reflexivity.
      + apply Co_intro. intros j Hj x args args' k kv Hargs Hdf Hk.
        eapply sim_fstep; [reflexivity|].
        destruct j as [|j1]; [apply sim_zero|].
        eapply sim_fstep; [reflexivity|].
        destruct j1 as [|j2]; [apply sim_zero|].
        apply (Co_use p cp n _ _ HCo j2 ltac:(lia)).
        * eapply brels_mono; [exact Hargs | lia].
        * exact Hdf.
        * eapply Kk_mono; [exact Hk | lia].
      + intros y ty0 chi E. discriminate E.
  Qed.

  (* destructor calls (scrutinee a variable or a `new`) *)
  Lemma wc_atomic_cut : forall cur t cont st s st', scrut_atomic t = true ->
    wc (codata_of p) cur false t cont st = Ok (s, st') ->
    exists c ty0, fterm_type t = Some ty0 /\ (forall ty, cmp (codata_of p) cur false t ty st = Ok (c, st')) /\
                  s = CCut c (compile_ty ty0) cont.
  Proof.
    intros cur t cont st s st' Ha H. destruct t; simpl in Ha; try discriminate; rewrite wc_unfold in H.
    - apply wc_var_inv in H. destruct H as [ty0 [Ety [Es Est]]]. subst.
      exists (CXVar CPrd (new_id v) (compile_ty ty0)), ty0. split; [reflexivity|]. split; [|reflexivity].
      intros ty1. rewrite cmp_unfold. reflexivity.
    - unfold wc_new in H. minv H. apply expect_inv in E. destruct E as [E ->].
      minv H. apply mret_inv in H. destruct H; subst.
      exists x0, x. split; [reflexivity|]. split; [|reflexivity]. intros ty1. rewrite cmp_unfold. exact E0.
  Qed.

  Lemma fl_dtor_atomic : forall N scrut x targs args ty, scrut_atomic scrut = true ->
    flt p cp N scrut -> Forall (flc p cp N) args -> Forall (flt p cp N) args ->
    flw p cp N (FDtor scrut x targs args ty).
  Proof.
    intros N scrut x targs args ty Hat0 HTs HA HT.
    intros n Hn G cur cont st s st' e ce k Hwc Hf Hkd Hws Hl HG Hbn Hni Hsh He HCK.
    rewrite wc_unfold in Hwc. apply wc_dtor_inv in Hwc.
    destruct Hwc as [args' [st1 [sty0 [Hargs [Esty Hwscrut]]]]].
    simpl in Hf, Hkd, Hws.
    apply andb_prop in Hf. destruct Hf as [Hf _]. pose proof Hat0 as Hat. apply andb_prop in Hf. destruct Hf as [Hfs Hfa].
    apply andb_prop in Hws. destruct Hws as [Hws Hwa].
    apply andb_prop in Hkd. destruct Hkd as [Hkd Hkx]. apply andb_prop in Hkd. destruct Hkd as [Hkd Hka].
    apply andb_prop in Hkd. destruct Hkd as [Hks Hkscrut]. apply Bool.eqb_prop in Hkx.
    assert (Hkind : tkind p (FDtor scrut x targs args ty) = dkind p x) by (unfold tkind; simpl; exact Hkx).
    rewrite Hkind in *.
    destruct (wc_atomic_cut cur scrut _ st1 s st' Hat Hwscrut) as [c [ty0 [Ety [Hcmp Es]]]].
    rewrite Esty in Ety. injection Ety as Ety. subst ty0 s.
    set (dcont := CXtor CCns (new_id x) (args' ++ [CConsumer cont]) (compile_ty sty0)) in *.
    assert (Hg1 : grows st st1) by (eapply subst_with_grows; exact Hargs).
    assert (Hcd : is_codata cp (compile_ty sty0) = true).
    { rewrite (is_codata_compile p cp Hcod). unfold tkind in Hkscrut. rewrite Esty in Hkscrut. exact Hkscrut. }
    destruct (HTs n Hn G cur (compile_ty sty0) st1 c st' e ce (Hcmp _) Hfs Hks Hkscrut Hws Hl) as [pv [_ [_ [Hcutd [HCo _]]]]].
    { eapply Gused_grows; eauto. }
    { eapply incl_grows; [|exact Hg1]. intros z Hz. apply Hbn. simpl. apply in_or_app. left. exact Hz. }
    { exact Hcd. }
    { eapply erel_weaken; [exact He | | apply Nat.le_refl]. apply Sof_incl. intros bb Hx. apply fvs_cut. left. exact Hx. }
    assert (HKS : KS p cp n (dkind p x) k cont ce).
    { eapply CK_KS; [exact HCK|]. intros bb Hbb. apply Sof_in. apply fvs_cut. right.
      apply fvt_xtor. apply fva_app. right. apply fva_cons. left. exact Hbb. }
    destruct (darg_props args Hfa) as [Hfa' Hpo].
    assert (Hstep : cstep cp (Run (CCut c (compile_ty sty0) dcont) ce) =
                    start_args cp (args' ++ [CConsumer cont]) ce
                      (FinXtorK (new_id x) (MCutP (is_codata cp (compile_ty sty0)) c ce))).
    { destruct scrut; simpl in Hat; try discriminate.
      - specialize (Hcmp CI64). rewrite cmp_unfold in Hcmp. apply cmp_var_inv in Hcmp. destruct Hcmp as [t0 [_ [Ec _]]]. subst c. reflexivity.
      - specialize (Hcmp CI64). rewrite cmp_unfold in Hcmp. apply cmp_new_inv in Hcmp. destruct Hcmp as [cl [t0 [_ [_ Ec]]]]. subst c. reflexivity. }
    destruct n as [|n1]; [apply sim_zero|].
    eapply sim_fstep; [reflexivity|]. apply sim_cstep. rewrite Hstep, start_args_eq.
    apply (args_sim p cp Hcod N args HA HT n1 ltac:(lia) true G cur st args' st1 e ce [CConsumer cont]
             (AfDtor scrut x) (FinXtorK (new_id x) (MCutP (is_codata cp (compile_ty sty0)) c ce)) k [] [] Hargs Hfa' Hka (fun _ => Hpo) Hwa).
    - eapply lifted_ok_grows; [exact Hl|]. eapply cmp_grows. apply (Hcmp CI64).
    - exact HG.
    - intros z Hz. apply Hbn. simpl. apply in_or_app. right. exact Hz.
    - eapply erel_weaken; [exact He | | lia]. apply Sof_incl. intros bb Hx. apply fvs_cut. right.
      apply fvt_xtor. apply fva_app. left. exact Hx.
    - intros j Hj new new' Hnew Hkinds.
      destruct j as [|j1]; [apply sim_zero|].
      eapply sim_fstep; [simpl; rewrite rev_append_nil_twice; reflexivity|].
      unfold cargs_res. apply sim_cstep.
      destruct (KS_arg p cp _ _ _ _ ce (MArgs (rev_append new' []) [] ce (FinXtorK (new_id x) (MCutP (is_codata cp (compile_ty sty0)) c ce))) Hsh
                  (KS_mono p cp _ (S j1) _ _ _ _ HKS ltac:(lia))) as [kv [Hreach Hkk]].
      eapply sim_rreach; [|exact Hreach].
      apply sim_cstep. rewrite cstep_app_margs. unfold cargs_res. simpl finish_args.
      change (rev_append (BK kv :: rev_append new' []) []) with (rev_append (rev_append new' []) [BK kv]).
      rewrite rev_append_twice_app.
      apply sim_cstep. simpl cstep. rewrite Hcutd.
      (* the scrutinee: the thunk of the term, forced by the destructor frame *)
      assert (Hdf : Forall dfield new).
      { clear -Hkinds. induction Hkinds as [|b y r r' [Hb _] Hr IH]; constructor; [exact Hb | exact IH]. }
      assert (Hth : sim p cp (S j1) (FRet (FkDtor x new k) (FvThunk scrut e))
                        (interact_val pv (KDtor (new_id x) (new' ++ [BK kv])))).
      { apply (Co_use p cp (S n1) _ pv HCo j1 ltac:(lia)).
        - eapply brels_mono; [exact Hnew | lia].
        - exact Hdf.
        - eapply Kk_mono; [exact Hkk | lia]. }
      intros out o Hr Fo. apply (Hth out o); [|exact Fo].
      rewrite (frun_next p j1 _ _ out (eq_refl : fstep p (FRet (FkDtor x new k) (FvThunk scrut e)) = FNext (FEval scrut e (FkDtor x new k)))).
      exact Hr.
  Qed.

  (* destructor calls with an arbitrary scrutinee and atomic arguments: the source
     evaluates the arguments (lookups) first, the translation hands the destructor consumer - with the
     arguments still as syntax - to the scrutinee *)
  Definition atom_val (e : fenv) (y : fterm) : option fbv :=
    match y with
    | FLit z => Some (FbP (FvInt z))
    | FVar v _ _ => match flookup e v with Some (FbP val) => Some (FbP val) | _ => None end
    | _ => None
    end.
  Fixpoint atoms (e : fenv) (args : list fterm) : option (list fbv) :=
    match args with
    | [] => Some []
    | y :: r => match atom_val e y, atoms e r with Some b, Some l => Some (b :: l) | _, _ => None end
    end.

  Lemma sim_after_step : forall cf cf' r, fstep p cf = FNext cf' -> (forall j, sim p cp j cf' r) -> forall j, sim p cp j cf r.
  Proof. intros cf cf' r Hs H j. destruct j as [|j]; [apply sim_zero | eapply sim_fstep; [exact Hs | apply H]]. Qed.
  Lemma sim_all_stuck : forall cf w r, fstep p cf = FHalt (OStuck w) -> forall j, sim p cp j cf r.
  Proof. intros cf w r Hs j. destruct j as [|j]; [apply sim_zero | eapply sim_stuck; exact Hs]. Qed.

  Definition plain_data_arg (y : fterm) : Prop :=
    match y with FVar _ _ (Some FCns) => False | _ => True end /\ tkind p y = false.

  Lemma atomic_src : forall e args, forallb atomic args = true -> (forall y, In y args -> plain_data_arg y) ->
    match atoms e args with
    | Some vals => forall f k done r j, sim p cp j (FArgs (rev_append vals done) [] e f k) r ->
                                        sim p cp (3 * List.length args + j) (FArgs done args e f k) r
    | None => forall f k done r j, sim p cp j (FArgs done args e f k) r
    end.
  Proof.
    intros e. induction args as [|y r IH]; intros Hat Hpl.
    - simpl. intros f k done r0 j H. exact H.
    - simpl in Hat. apply andb_prop in Hat. destruct Hat as [Hat1 Hat2].
      specialize (IH Hat2 (fun y0 Hy0 => Hpl y0 (or_intror Hy0))).
      destruct (Hpl y (or_introl eq_refl)) as [Hncns Htk].
      assert (Hstep1 : forall done f k, fstep p (FArgs done (y :: r) e f k) = FNext (FEval y e (FkArgs done r e f k))).
      { intros done f k. apply fstep_args_eval; assumption. }
      simpl atoms. destruct y; simpl in Hat1; try discriminate; simpl atom_val.
      + (* variable *)
        destruct (flookup e v) as [[val|k0]|] eqn:El.
        * destruct (atoms e r) as [vals|].
          -- intros f k done r0 j H.
             replace (3 * List.length (FVar v ty chi :: r) + j)%nat with (S (S (S (3 * List.length r + j)))) by (simpl; lia).
             eapply sim_fstep; [apply Hstep1|]. eapply sim_fstep; [simpl; rewrite El; reflexivity|].
             eapply sim_fstep; [reflexivity|]. apply IH. exact H.
          -- intros f k done r0 j. eapply sim_after_step; [apply Hstep1|]. intros j1.
             eapply sim_after_step; [simpl; rewrite El; reflexivity|]. intros j2.
             eapply sim_after_step; [reflexivity|]. intros j3. apply IH.
        * intros f k done r0 j. eapply sim_after_step; [apply Hstep1|].
          apply (sim_all_stuck _ "var-kind"). simpl. rewrite El. reflexivity.
        * intros f k done r0 j. eapply sim_after_step; [apply Hstep1|].
          apply (sim_all_stuck _ "var-unbound"). simpl. rewrite El. reflexivity.
      + (* literal *)
        destruct (atoms e r) as [vals|].
        * intros f k done r0 j H.
          replace (3 * List.length (FLit n :: r) + j)%nat with (S (S (S (3 * List.length r + j)))) by (simpl; lia).
          eapply sim_fstep; [reflexivity|]. eapply sim_fstep; [reflexivity|].
          eapply sim_fstep; [reflexivity|]. apply IH. exact H.
        * intros f k done r0 j. eapply sim_after_step; [reflexivity|]. intros j1.
          eapply sim_after_step; [reflexivity|]. intros j2.
          eapply sim_after_step; [reflexivity|]. intros j3. apply IH.
  Qed.

  Lemma darg_plain : forall args, forallb (darg_ok p) args = true -> forall y, In y args -> plain_data_arg y.
  Proof.
    intros args H y Hy. rewrite forallb_forall in H. destruct (darg_ok_inv p y (H y Hy)) as [Hc [_ [Hk _]]].
    split; [|exact Hk]. destruct y; try exact I. destruct chi as [[|]|]; try exact I. discriminate Hc.
  Qed.

  Lemma atomic_rel : forall n G cur args st args' st' e ce vals,
    subst_with (fun y => cmp (codata_of p) cur false y) args st = Ok (args', st') ->
    forallb atomic args = true -> forallb (darg_ok p) args = true -> forallb (ws_arg G) args = true ->
    erel p cp n G (Sof (fva args')) e ce -> atoms e args = Some vals ->
    exists vals',
      Forall2 (brel p cp n) vals vals' /\ Forall dfield vals /\
      (forall ce', agree (cnames (fva args')) ce ce' -> forall done' tail fin,
         rreach cp (cargs_res cp done' (args' ++ tail) ce' fin) (cargs_res cp (rev_append vals' done') tail ce' fin)).
  Proof.
    intros n G cur. induction args as [|y r IH]; intros st args' st' e ce vals Hs Hat Hda Hw He Hatoms.
    - simpl in Hs. apply mret_inv in Hs. destruct Hs; subst. simpl in Hatoms. injection Hatoms as Hatoms. subst vals.
      exists []. split; [constructor|]. split; [constructor|]. intros ce' _ done' tail fin. apply rreach_refl.
    - apply subst_with_cons_inv in Hs. destruct Hs as [a [st1 [rest [Ha [Hrest El]]]]]. subst args'.
      simpl in Hat, Hda, Hw. apply andb_prop in Hat. destruct Hat as [Hat1 Hat2].
      apply andb_prop in Hda. destruct Hda as [Hda1 Hda2]. apply andb_prop in Hw. destruct Hw as [Hw1 Hw2].
      simpl in Hatoms. destruct (atom_val e y) as [b|] eqn:Eb; [|discriminate].
      destruct (atoms e r) as [vr|] eqn:Er; [|discriminate]. injection Hatoms as Hatoms. subst vals.
      destruct (IH st1 rest st' e ce vr Hrest Hat2 Hda2 Hw2) as [vals' [Hrel [Hdf Hcore]]]; [|exact Er|].
      { eapply erel_weaken; [exact He | | apply Nat.le_refl]. apply Sof_incl. intros bb Hx. apply fva_cons. right. exact Hx. }
      assert (Hpl : plain_data_arg y) by (apply (darg_plain [y]); [simpl; rewrite Hda1; reflexivity | left; reflexivity]).
      destruct Hpl as [Hncns Htk].
      apply compile_arg_inv in Ha. destruct Ha as [[v [ty [ty0 [Ey _]]]]|[_ [ty0 [c [Ety [Ec Ea]]]]]].
      { subst y. contradiction. }
      subst a.
      destruct y; simpl in Hat1; try discriminate.
      + (* a variable *)
        rewrite cmp_unfold in Ec. apply cmp_var_inv in Ec. destruct Ec as [ty1 [Ety1 [Ec Est]]]. subst c st1 ty.
        assert (Hwv : ws G (FVar v (Some ty1) chi) = true).
        { destruct chi as [[|]|]; try exact Hw1. contradiction. }
        simpl in Hwv. apply var_ok_inv in Hwv. destruct Hwv as [ty2 [E2 Hg]]. injection E2 as E2. subst ty2.
        destruct (erel_var p cp n G _ e ce v _ He Hg) as [val [pv [Elk [Eclk [Hv Hd]]]]].
        { apply (Sof_in (mkcb (new_id v) CPrd (compile_ty ty1))). apply fva_cons. left. apply fvt_var. reflexivity. }
        unfold tkind in Htk. simpl in Htk. rewrite (is_codata_compile p cp Hcod), Htk in Hd. simpl in Hd.
        simpl in Eb. rewrite Elk in Eb. injection Eb as Eb. subst b.
        exists (BP pv :: vals'). split; [constructor; [exact Hv | exact Hrel]|].
        split; [constructor; [exact Hd | exact Hdf]|].
        intros ce' Hag done' tail fin. simpl app. unfold cargs_res at 1. apply rreach_step.
        simpl. rewrite (Hag (new_id v)); [|apply (in_cnames (mkcb (new_id v) CPrd (compile_ty ty1))); apply fva_cons; left; apply fvt_var; reflexivity].
        rewrite Eclk. apply rreach_step. rewrite cstep_app_margs.
        apply Hcore. intros z Hz. apply Hag. apply in_cnames_inv in Hz. destruct Hz as [bb [Hbb E]]. subst z.
        apply in_cnames. apply fva_cons. right. exact Hbb.
      + (* a literal *)
        rewrite cmp_unfold in Ec. unfold cmp_lit in Ec. apply mret_inv in Ec. destruct Ec; subst c st1.
        simpl in Eb. injection Eb as Eb. subst b.
        exists (BP (PInt n0) :: vals'). split; [constructor; [reflexivity | exact Hrel]|].
        split; [constructor; [exact I | exact Hdf]|].
        intros ce' Hag done' tail fin. simpl app. unfold cargs_res at 1. apply rreach_step.
        simpl. apply rreach_step. rewrite cstep_app_margs.
        apply Hcore. intros z Hz. apply Hag. apply in_cnames_inv in Hz. destruct Hz as [bb [Hbb E]]. subst z.
        apply in_cnames. apply fva_cons. right. exact Hbb.
  Qed.

  Lemma fl_dtor_general : forall N scrut x targs args ty, forallb atomic args = true ->
    flw p cp N scrut ->
    flw p cp N (FDtor scrut x targs args ty).
  Proof.
    intros N scrut x targs args ty Hatom Hscrut.
    intros n Hn G cur cont st s st' e ce k Hwc Hf Hkd Hws Hl HG Hbn Hni Hsh He HCK.
    rewrite wc_unfold in Hwc. apply wc_dtor_inv in Hwc.
    destruct Hwc as [args' [st1 [sty0 [Hargs [Esty Hwscrut]]]]].
    simpl in Hf, Hkd, Hws.
    apply andb_prop in Hf. destruct Hf as [Hf _]. apply andb_prop in Hf. destruct Hf as [Hfs Hfa].
    apply andb_prop in Hws. destruct Hws as [Hws Hwa].
    apply andb_prop in Hkd. destruct Hkd as [Hkd Hkx]. apply andb_prop in Hkd. destruct Hkd as [Hkd Hka].
    apply andb_prop in Hkd. destruct Hkd as [Hks Hkscrut]. apply Bool.eqb_prop in Hkx.
    assert (Hkind : tkind p (FDtor scrut x targs args ty) = dkind p x) by (unfold tkind; simpl; exact Hkx).
    rewrite Hkind in *.
    set (dcont := CXtor CCns (new_id x) (args' ++ [CConsumer cont]) (compile_ty sty0)) in *.
    assert (Hg1 : grows st st1) by (eapply subst_with_grows; exact Hargs).
    pose proof (darg_arg_ok p args Hfa) as Hfa'.
    assert (HAub : Forall (ubc p cur) args) by (apply Forall_forall; intros a0 _; apply (ub_cmp p cur)).
    (* where the free bindings of the destructor consumer come from *)
    assert (Hsrc : forall bb, In bb (fvt dcont) -> inG G (flat_map nm args) bb \/ In bb (fvt cont)).
    { intros bb Hbb. apply fvt_xtor in Hbb. apply fva_app in Hbb. destruct Hbb as [Hbb|Hbb].
      - left. eapply (ub_args p cur G args HAub); eauto.
      - right. apply fva_cons in Hbb. destruct Hbb as [Hbb|Hbb]; [exact Hbb | apply fva_nil in Hbb; contradiction]. }
    destruct n as [|n1]; [apply sim_zero|].
    eapply sim_fstep; [reflexivity|].
    pose proof (atomic_src e args Hatom (darg_plain args Hfa)) as Hsrcargs.
    destruct (atoms e args) as [vals|] eqn:Eatoms; [|apply Hsrcargs].
    eapply sim_mono; [apply (Hsrcargs (AfDtor scrut x) k [] _ n1)|lia].
    destruct n1 as [|n2]; [apply sim_zero|].
    eapply sim_fstep; [simpl; rewrite rev_append_nil_twice; reflexivity|].
    apply (Hscrut n2 ltac:(lia) G cur dcont st1 s st' e ce (FkDtor x vals k) Hwscrut Hfs Hks Hws Hl).
    - eapply Gused_grows; eauto.
    - eapply incl_grows; [|exact Hg1]. intros z Hz. apply Hbn. simpl. apply in_or_app. left. exact Hz.
    - intros z Hz. apply in_cnames_inv in Hz. destruct Hz as [bb [Hbb E]]. subst z.
      destruct (Hsrc bb Hbb) as [Hg|Hc].
      + destruct (inG_used G _ bb st HG Hg) as [y [Ey Hy]]. exists y. split; [exact Ey|]. eapply grows_vars_incl; eauto.
      + eapply names_in_grows; [exact Hni | exact Hg1 | apply in_cnames; exact Hc].
    - rewrite Hkscrut. reflexivity.
    - eapply erel_mono; [exact He | lia].
    - rewrite Hkscrut. split.
      + intros bb Hbb Hs. destruct (Hsrc bb Hbb) as [[Hg _]|Hc].
        * eapply erel_kind; eauto.
        * apply (proj1 HCK); assumption.
      + intros Hall.
        assert (He_args : erel p cp n2 G (Sof (fva args')) e ce).
        { eapply erel_weaken; [exact He | | lia]. intros z Hz. apply Hall. unfold Sof in Hz.
          apply in_cnames_inv in Hz. destruct Hz as [bb [Hbb E]]. subst z. apply in_cnames. apply fvt_xtor. apply fva_app. left. exact Hbb. }
        destruct (atomic_rel n2 G cur args st args' st1 e ce vals Hargs Hatom Hfa Hwa He_args Eatoms) as [vals' [Hrel [Hdf Hcore]]].
        assert (HKS : KS p cp (S (S n2)) (dkind p x) k cont ce).
        { eapply CK_KS; [exact HCK|]. intros bb Hbb. apply Hall. apply in_cnames. apply fvt_xtor. apply fva_app. right.
          apply fva_cons. left. exact Hbb. }
        unfold dcont. simpl. intros ce' Hag m.
        assert (Hag_args : agree (cnames (fva args')) ce ce').
        { intros z Hz. apply Hag. apply in_cnames_inv in Hz. destruct Hz as [bb [Hbb E]]. subst z.
          apply in_cnames. apply fvt_xtor. apply fva_app. left. exact Hbb. }
        assert (Hag_cont : agree (cnames (fvt cont)) ce ce').
        { intros z Hz. apply Hag. apply in_cnames_inv in Hz. destruct Hz as [bb [Hbb E]]. subst z.
          apply in_cnames. apply fvt_xtor. apply fva_app. right. apply fva_cons. left. exact Hbb. }
        destruct (KS_arg p cp _ _ _ _ ce' (MArgs (rev_append vals' []) [] ce' (FinXtorK (new_id x) m)) Hsh
                    (KS_agree p cp _ _ _ _ _ _ Hsh HKS Hag_cont)) as [kv0 [Hreach Hkk]].
        exists (KDtor (new_id x) (vals' ++ [BK kv0])). split.
        * rewrite start_args_eq.
          eapply rreach_trans; [apply (Hcore ce' Hag_args [] [CConsumer cont])|].
          unfold cargs_res at 1. apply rreach_step.
          eapply rreach_trans; [exact Hreach|]. apply rreach_step. rewrite cstep_app_margs. unfold cargs_res. simpl finish_args.
          change (rev_append (BK kv0 :: rev_append vals' []) []) with (rev_append (rev_append vals' []) [BK kv0]).
          rewrite rev_append_twice_app. apply rreach_refl.
        * apply Kk_dtor; [exact Hrel | exact Hdf | eapply Kk_mono; [exact Hkk | lia]].
  Qed.

  Lemma fl_dtor : forall N scrut x targs args ty,
    flw p cp N scrut -> flt p cp N scrut -> Forall (flc p cp N) args -> Forall (flt p cp N) args ->
    flw p cp N (FDtor scrut x targs args ty).
  Proof.
    intros N scrut x targs args ty Hw HTs HA HT.
    intros n Hn G cur cont st s st' e ce k Hwc Hf.
    pose proof Hf as Hf0. simpl in Hf0. apply andb_prop in Hf0. destruct Hf0 as [_ Hor]. apply orb_prop in Hor.
    destruct Hor as [Hat|Hat].
    - eapply (fl_dtor_atomic N scrut x targs args ty Hat HTs HA HT); eauto.
    - eapply (fl_dtor_general N scrut x targs args ty Hat Hw); eauto.
  Qed.

  Theorem fl_all : forall N t, flw p cp N t /\ flc p cp N t /\ flt p cp N t.
  Proof.
    induction N as [N IHN] using lt_wf_ind.
    assert (IHw : forall N', (N' < N)%nat -> forall t, flw p cp N' t).
    { intros N' HN t. apply (IHN N' HN t). }
    (* terms compiled by the default method: flc and flt from flw *)
    assert (Hdef : forall t, stmt_form t = true -> flw p cp N t -> flw p cp N t /\ flc p cp N t /\ flt p cp N t).
    { intros t Hs H. split; [exact H|]. split; [apply flc_default | apply flt_default]; assumption. }
    assert (Hnotflt : forall t, (kd p t = true -> tkind p t = true -> False) -> flt p cp N t).
    { intros t Hno n Hn G cur ty st c st' e ce Hc Hf Hkd Hk1. exfalso. exact (Hno Hkd Hk1). }
    assert (HA : forall args, Forall (fun t => flw p cp N t /\ flc p cp N t /\ flt p cp N t) args ->
                   Forall (flc p cp N) args /\ Forall (flt p cp N) args).
    { intros args H. split; (eapply Forall_impl; [|exact H]); intros a Ha; apply Ha. }
    assert (HB : forall cls, Forall (fun c => flw p cp N (clause_body c) /\ flc p cp N (clause_body c) /\ flt p cp N (clause_body c)) cls ->
                   Forall (fun c => flw p cp N (clause_body c)) cls).
    { intros cls H. eapply Forall_impl; [|exact H]. intros a Ha. apply Ha. }
    induction t using fterm_ind'.
    - apply fl_var; assumption.
    - destruct (fl_lit p cp N n) as [Hw Hc]. split; [exact Hw|]. split; [exact Hc|].
      apply Hnotflt. intros _ Hk. unfold tkind in Hk. simpl in Hk. discriminate.
    - destruct IHt1 as [_ [C1 _]], IHt2 as [_ [C2 _]].
      destruct (fl_op p cp N t1 o t2 C1 C2) as [Hw Hc]. split; [exact Hw|]. split; [exact Hc|].
      apply Hnotflt. intros _ Hk. unfold tkind in Hk. simpl in Hk. discriminate.
    - destruct IHt1 as [_ [C1 _]], IHt2 as [W2 _], IHt3 as [W3 _].
      apply Hdef; [reflexivity|]. apply fl_ifc; try assumption. destruct b as [b'|]; [simpl in H; tauto | exact I].
    - destruct IHt1 as [_ [C1 _]], IHt2 as [W2 _]. apply Hdef; [reflexivity|]. apply fl_print; assumption.
    - destruct IHt1 as [W1 [_ T1]], IHt2 as [W2 _]. apply Hdef; [reflexivity|]. apply fl_let; assumption.
    - destruct (HA args H). apply Hdef; [reflexivity|]. apply fl_call; assumption.
    - destruct (HA args H) as [HAc HAt].
      destruct (fl_ctor N x args ty HAc HAt) as [Hw Hc]. split; [exact Hw|]. split; [exact Hc|].
      apply Hnotflt. intros Hkd Hk. simpl in Hkd. apply andb_prop in Hkd. destruct Hkd as [_ Hkty].
      unfold tkind in Hk. simpl in Hk. rewrite Hk in Hkty. discriminate.
    - destruct IHt as [Wsc [_ Ts]], (HA args H). apply Hdef; [reflexivity|]. apply fl_dtor; assumption.
    - destruct IHt as [Ws _]. apply Hdef; [reflexivity|]. apply fl_case; [exact Ws | apply HB; exact H].
    - apply fl_new. apply HB. exact H.
    - destruct IHt as [W _]. destruct (fl_label p cp Hcod N l t ty W) as [Hw Hc]. split; [exact Hw|]. split; [exact Hc|].
      apply Hnotflt. intros Hkd Hk. simpl in Hkd. apply andb_prop in Hkd. destruct Hkd as [_ Hkty].
      unfold tkind in Hk. simpl in Hk. rewrite Hk in Hkty. discriminate.
    - destruct IHt as [W _]. apply Hdef; [reflexivity|]. apply fl_goto; assumption.
    - destruct IHt as [_ [C _]]. apply Hdef; [reflexivity|]. apply fl_exit; assumption.
    - destruct IHt as [W [C T]]. apply fl_paren; assumption.
  Qed.
End FLh.
