(* C08, heap statements, all statement forms: the dispatch layout `LAB fresh; jump table (for two or more clauses); clauses`,
   WITHOUT the hypothesis that every clause code contains an instruction of non-zero size (it fails for a clause whose
   code consists of labels only: an empty Switch - a match on a data type without constructors - behind an empty load).
     rcs_nonempty         every statement emits at least one item (a label at least);
     dispatch_layout_nz   the address of the label (+ 4k for table entry k) leads to the code `load ++ body` of clause k;
                          the LANDING of the indirect jump (index_at of the address, runs from the clause
                          code = runs from the landing point) is delivered for table entries always and for the single
                          clause of a table-less dispatch IF its code contains an instruction of non-zero size; in addition
                          where the clause code sits in the code of the clauses.
   The program-level induction (Proof/RVKSimProg.v) shows that the code of a statement the machine EXECUTES always contains
   such an instruction, so the condition is met whenever a closure is invoked. *)
From Coq Require Import List ZArith NArith String Bool Lia FMapPositive.
From SCC Require Import Base.Sexp Lang.AxSyn Sem.AxSem Model.ParMoves Model.Backend Model.RV Sem.RVSem Sem.RVWf
     Model.Linearize Model.LinCheck Generated.Constants Proof.LinBasics
     Proof.RVSel Proof.SubstGraph Proof.SubstBackends Proof.RVSubst Proof.RVSimAddr Proof.BackendInv Proof.RVSimRel Proof.RVSimStmt
     Proof.RVSimClo Proof.RVHLayout.
Import ListNotations.
Open Scope Z_scope.
Open Scope list_scope.

Lemma rcs_nonempty types : forall s c lc code lc', rcs types s c lc = Ok (code, lc') -> code <> [].
Proof.
  intros s. induction s using stmt_ind2; intros c lc code lc' CS.
  - destruct (cs_substitute _ _ _ _ _ _ _ _ CS) as (c1 & lc1 & c2 & c3 & _ & _ & NX & ->).
    cbn [b_mark rv_backend app]. intros E. apply app_eq_nil in E as [_ E]. apply app_eq_nil in E as [_ E]. exact (IHs _ _ _ _ NX E).
  - destruct (cs_call _ _ _ _ _ _ _ _ CS) as (-> & _). discriminate.
  - destruct (cs_let _ _ _ _ _ _ _ _ _ _ CS) as (d & k & rest & arguments & c1 & lc1 & tmpv & c3 & _ & _ & _ & _ & _ & _ & ->).
    intros E. apply app_eq_nil in E as [_ E]. discriminate.
  - destruct (cs_switch _ _ _ _ _ _ _ _ CS) as (c1 & c3 & _ & _ & ->). intros E. apply app_eq_nil in E as [_ E]. discriminate.
  - destruct env as [env|]; [|cbn [code_statement] in CS; discriminate].
    destruct (cs_create _ _ _ _ _ _ _ _ _ _ _ CS) as (rest & cenv & c1 & lc1 & tmpv & c3 & lc3 & c5 & _ & _ & _ & _ & _ & ->).
    cbn [b_mark b_load_label rv_backend app r_load_label]. intros E. apply app_eq_nil in E as [_ E]. discriminate.
  - destruct (cs_invoke _ _ _ _ _ _ _ _ _ _ CS) as (tmpv & d & _ & _ & _ & CD).
    destruct (Nat.leb (List.length (txtors d)) 1); [subst code; discriminate|destruct CD as (k & _ & ->)].
    intros E. apply app_eq_nil in E as [_ E]. cbv [b_add_and_jump rv_backend r_add_and_jump] in E.
    apply app_eq_nil in E as [_ E]. discriminate.
  - destruct (cs_literal _ _ _ _ _ _ _ _ _ CS) as (tv & c2 & _ & _ & ->). discriminate.
  - destruct (cs_op _ _ _ _ _ _ _ _ _ _ _ CS) as (tv & ta & tb & c2 & _ & _ & _ & _ & ->). destruct o; discriminate.
  - destruct (cs_print rv_backend _ _ _ _ _ _ _ _ CS) as (tv & c2 & _ & NX & ->). cbn [b_mark b_print rv_backend app]. exact (IHs _ _ _ _ NX).
  - destruct (cs_ifc _ _ _ _ _ _ _ _ _ _ _ CS) as (ta & c1 & c2 & lc2 & c3 & _ & C1 & _ & _ & ->).
    destruct b as [b|]; [destruct C1 as (tb & _ & ->)|subst c1]; destruct so; discriminate.
  - destruct (cs_exit _ _ _ _ _ _ _ CS) as (tv & _ & -> & _). discriminate.
Qed.

Section Layout.
Variable im : image.
Variable stop : positive.
Hypothesis IMG : rimg_ok im.
Hypothesis FWD : fwd_ok im.
Hypothesis STOPC : exists l, PM.find stop (code im) = Some (LAB l).
Hypothesis ENDC : PM.find (Pos.succ stop) (code im) = None.

(* the label, the table and the clauses: where clause k is, and how the address of the label leads there *)
Lemma dispatch_layout_nz types ld bc pcl fresh cls c5 lc3 lc5 a :
  placed im pcl (([LAB fresh] ++ table_or_nil rv_backend cls fresh) ++ c5) ->
  gclauses types ld bc fresh cls lc3 = Ok (c5, lc5) ->
  PM.find pcl (addr_of im) = Some a ->
  forall k c, nth_error cls k = Some c ->
    exists pcc lcl cl lcb cb lcb',
      (exists pre5 post5, c5 = pre5 ++ (cl ++ cb) ++ post5) /\
      (Nat.leb (List.length cls) 1 = true -> forall s, star im pcl s pcc s) /\
      ld (cl_ctx c) lcl = Ok (cl, lcb) /\ rcs types (cl_body c) (bc (cl_ctx c)) lcb = Ok (cb, lcb') /\
      placed im pcc (cl ++ cb) /\
      (has_nz (cl ++ cb) \/ Nat.leb (List.length cls) 1 = false ->
       exists i, PM.find (key (a + (if Nat.leb (List.length cls) 1 then 0 else jump_length (N.of_nat k)))) (index_at im) = Some i /\
                 (forall s o, rfin im stop pcc s o -> rfin im stop i s o)).
Proof.
  intros [CA LA] CC AL k c Hk.
  rewrite <- !app_assoc in CA, LA.
  pose proof (nth_error_In _ _ Hk) as Hin.
  destruct c as [[x cx] body].
  destruct (gclauses_nth types ld bc fresh _ _ _ _ k x cx body CC Hk) as (pre5 & lc0 & cl & lc1 & cb & lc2 & post5 & E5 & LD & BD & PRE0).
  pose proof (rcs_nonempty types _ _ _ _ _ BD) as NEcb.
  cbn [cl_ctx cl_body fst snd] in *.
  assert (Lk : (k < List.length cls)%nat) by (apply nth_error_Some; congruence).
  set (tb := table_or_nil rv_backend cls fresh) in *.
  set (lx := fresh +++ "_" +++ show_ident x) in *.
  set (full := [LAB fresh] ++ tb ++ pre5 ++ [LAB lx] ++ (cl ++ cb) ++ post5).
  assert (CODE : at_code im pcl full).
  { unfold full. rewrite E5 in CA. repeat rewrite <- app_assoc in CA. repeat rewrite <- app_assoc. cbn [app] in *. exact CA. }
  assert (LABS : labels_ok im pcl full).
  { unfold full. rewrite E5 in LA. repeat rewrite <- app_assoc in LA. repeat rewrite <- app_assoc. cbn [app] in *. exact LA. }
  set (jl := (1 + List.length tb + List.length pre5)%nat).
  assert (NL : nth_error full jl = Some (LAB lx)).
  { unfold full, jl. cbn [app Nat.add nth_error]. rewrite nth_error_app2 by lia. rewrite nth_error_app2 by lia.
    replace (_ - _ - _)%nat with O by lia. reflexivity. }
  destruct (CODE jl _ NL) as (CLx & (alx & ALx)).
  pose proof (LABS jl _ NL) as FLx.
  assert (CB : placed im (padd pcl (S jl)) (cl ++ cb)).
  { assert (PLc : placed im pcl (([LAB fresh] ++ tb ++ pre5 ++ [LAB lx]) ++ (cl ++ cb) ++ post5)).
    { assert (EQ : ([LAB fresh] ++ tb ++ pre5 ++ [LAB lx]) ++ (cl ++ cb) ++ post5 = full) by (unfold full; cbn [app]; rewrite <- !app_assoc; reflexivity).
      rewrite EQ. split; [exact CODE|exact LABS]. }
    apply placed_app in PLc as [_ PLc]. apply placed_app in PLc as [PLc _].
    replace (List.length ([LAB fresh] ++ tb ++ pre5 ++ [LAB lx])) with (S jl) in PLc
      by (unfold jl; rewrite !app_length; cbn [List.length]; lia).
    exact PLc. }
  assert (INTO : forall s, star im (padd pcl jl) s (padd pcl (S jl)) s).
  { intros s. eapply star_step; [eapply one_next; [exact CLx|exact ALx|reflexivity]|]. rewrite <- padd_succ. apply star_refl. }
  assert (NEcc : cl ++ cb <> []) by (intros E; apply app_eq_nil in E as [_ E]; contradiction).
  assert (CS : exists c0, PM.find (padd pcl (S jl)) (code im) = Some c0).
  { destruct (cl ++ cb) as [|c0 r0] eqn:Ecb; [contradiction|]. exists c0. apply (proj1 (proj1 CB O c0 eq_refl)). }
  assert (E5' : exists pre5' post5', c5 = pre5' ++ (cl ++ cb) ++ post5').
  { exists (pre5 ++ [LAB lx]), post5. rewrite E5. rewrite <- !app_assoc. reflexivity. }
  destruct (Nat.leb (List.length cls) 1) eqn:LE.
  - (* at most one clause: the label of the dispatch is followed by the label of the clause, then the clause code;
       the jump lands behind the labels at the head of the clause code *)
    assert (TB : tb = []) by (unfold tb, table_or_nil; now rewrite LE).
    assert (K0 : k = O) by (apply Nat.leb_le in LE; lia). subst k.
    assert (P5 : pre5 = []) by (apply PRE0; reflexivity).
    assert (J1 : jl = 1%nat) by (unfold jl; rewrite TB, P5; reflexivity).
    assert (DOWN : forall s, star im pcl s (padd pcl (S jl)) s).
    { intros s. destruct (CODE O (LAB fresh) eq_refl) as (C0 & (a0 & A0)).
      eapply star_step; [eapply one_next; [exact C0|exact A0|reflexivity]|].
      specialize (INTO s). rewrite J1 in INTO |- *. cbn [padd] in INTO |- *. exact INTO. }
    exists (padd pcl 2), lc0, cl, lc1, cb, lc2.
    split; [exact E5'|]. split; [intros _; rewrite J1 in DOWN; exact DOWN|]. split; [exact LD|]. split; [exact BD|].
    split; [rewrite J1 in CB; exact CB|].
    intros [NZ|C]; [|discriminate]. destruct NZ as (dz & cz & Hz & NZz).
    destruct CS as (c0 & CS).
    assert (N2 : nth_error full 2 = Some c0).
    { unfold full. rewrite TB, P5. cbn [app nth_error]. rewrite J1 in CS. cbn [padd] in CS.
      destruct (cl ++ cb) as [|c0' r0] eqn:Ecb; [destruct dz; discriminate|].
      pose proof (proj1 (proj1 CB O c0' eq_refl)) as X. rewrite J1 in X. cbn [padd] in X. cbn [app nth_error]. congruence. }
    pose proof (addr_along im IMG full pcl a CODE AL 2%nat c0 N2) as A2.
    assert (SZ2 : size_of (firstn 2 full) = 0) by (unfold full; rewrite TB, P5; reflexivity).
    rewrite SZ2, Z.add_0_r in A2. rewrite J1 in *. cbn [padd] in A2.
    destruct (FWD _ c0 a CS A2) as (i1 & IX1 & C1 & F1).
    { exists dz, cz. split; [|exact NZz]. rewrite <- padd_add. apply (proj1 (proj1 CB dz cz Hz)). }
    exists i1. split; [rewrite Z.add_0_r; exact IX1|]. intros s o Fin. exact (rfin_star_inv im stop STOPC ENDC _ _ _ _ o (F1 s) C1 Fin).
  - (* the jump table: entry k is a 4-byte JAL to the label of clause k *)
    assert (TB : tb = code_table rv_backend cls fresh) by (unfold tb, table_or_nil; now rewrite LE).
    assert (CODE' : at_code im pcl ([LAB fresh] ++ code_table rv_backend cls fresh ++ (pre5 ++ [LAB lx] ++ (cl ++ cb) ++ post5))).
    { unfold full in CODE. rewrite TB in CODE. exact CODE. }
    destruct (table_entry_k im IMG pcl fresh cls _ a CODE' AL k Lk) as [TE1 TE2].
    assert (NJ : nth_error full (1 + k) = Some (JAL ZERO lx)).
    { unfold full. rewrite TB. cbn [app Nat.add nth_error]. rewrite nth_error_app1 by (rewrite code_table_length; lia).
      apply (code_table_nth cls fresh k (x, cx, body) Hk). }
    destruct (CODE _ _ NJ) as (CJ & (aj & AJ)).
    assert (FROM : forall s, star im (padd pcl (1 + k)) s (padd pcl (S jl)) s).
    { intros s. eapply star_step; [eapply one_jump; [exact CJ|exact AJ|]|apply INTO].
      cbn [step]. unfold goto_label. rewrite FLx. reflexivity. }
    exists (padd pcl (S jl)), lc0, cl, lc1, cb, lc2.
    split; [exact E5'|]. split; [discriminate|]. split; [exact LD|]. split; [exact BD|]. split; [exact CB|].
    intros _. exists (padd pcl (1 + k)). split; [unfold jump_length; rewrite nat_N_Z; exact TE1|].
    intros s o Fin. exact (star_rfin im stop STOPC ENDC _ _ _ _ o (FROM s) Fin).
Qed.
End Layout.
