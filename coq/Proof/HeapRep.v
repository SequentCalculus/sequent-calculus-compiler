(* How the abstract heap of Model/Heap.v represents the (tree) values of the AxCut machine, and the
   extra invariant that makes the preconditions of the trace theorem (Proof/HeapTrace.v `pre`) hold
   for loads:

     rep lk mm v p    the value v is stored at pointer p: an integer has pointer 0; an object /
                      closure with n > 0 fields is a chain of 1 + nlinks n blocks headed by p whose
                      field slots (`obj_fields`), after the zero padding of the head block, are
                      pointers representing the fields; with no field the pointer is 0.  `rep`
                      reads pointer slots only, never headers.
     KI lk s R        (chains are owned) for every block x reachable from the roots with lk x > 0 links
                      still to follow, slot 2 of x is a non-null block with header 0 (its only referrer
                      is that link) and lk one less.  `lk` is a ghost map (block -> number of
                      continuation blocks that follow it in its object). *)
From Coq Require Import List ZArith Lia Bool Permutation.
From SCC Require Import Model.Heap Proof.HeapMore Proof.HeapTrace.
From SCC Require Sem.AxSem.
Import ListNotations.
Open Scope Z_scope.

Definition lkmap := Z -> nat.

Lemma cnt_flat_map_ge (f : Z -> list Z) l x b : In x l -> cnt (f x) b <= cnt (flat_map f l) b.
Proof.
  intros Hx. apply in_split in Hx as (l1 & l2 & ->). rewrite flat_map_app. cbn [flat_map]. rewrite !cnt_app.
  pose proof (cnt_nonneg (flat_map f l1) b). pose proof (cnt_nonneg (flat_map f l2) b). lia.
Qed.
Lemma cnt_flat_map_two (f : Z -> list Z) l x y b :
  In x l -> In y l -> x <> y -> In b (f x) -> In b (f y) -> 2 <= cnt (flat_map f l) b.
Proof.
  intros Hx Hy Hne Bx By. apply in_split in Hx as (l1 & l2 & ->).
  rewrite flat_map_app. cbn [flat_map]. rewrite !cnt_app.
  pose proof (cnt_in_pos _ _ Bx).
  apply in_app_iff in Hy as [Hy|[Hy|Hy]]; [|congruence|].
  - pose proof (cnt_flat_map_in f l1 y b Hy By). pose proof (cnt_nonneg (flat_map f l2) b). lia.
  - pose proof (cnt_flat_map_in f l2 y b Hy By). pose proof (cnt_nonneg (flat_map f l1) b). lia.
Qed.

Lemma sole_slot_ref s R hl fl cl c x :
  Inv s R hl fl cl -> In c cl -> hdr (m s c) = 0 -> In x (cl ++ fl) -> In c (ps (m s x)) ->
  ~ In c R /\ (forall y, In y (cl ++ fl) -> In c (ps (m s y)) -> y = x) /\ cnt (ps (m s x)) c = 1.
Proof.
  intros I Hc Hh Hx Hin. pose proof (i_rc _ _ _ _ _ I c Hc) as Hrc. unfold refs in Hrc. rewrite cnt_app, Hh in Hrc.
  pose proof (cnt_nonneg R c). pose proof (cnt_flat_map_ge (fun x => ps (m s x)) _ x c Hx) as G. cbn beta in G.
  pose proof (cnt_in_pos _ _ Hin). split; [|split].
  - intros HR. apply cnt_in_pos in HR. lia.
  - intros y Hy Hiny. destruct (Z.eq_dec y x) as [|Hne]; auto. exfalso.
    pose proof (cnt_flat_map_two (fun x => ps (m s x)) _ x y c Hx Hy ltac:(congruence) Hin Hiny). lia.
  - lia.
Qed.
Lemma sole_root_ref s R hl fl cl c :
  Inv s R hl fl cl -> In c R -> c <> 0 -> hdr (m s c) = 0 ->
  cnt R c = 1 /\ forall y, In y (cl ++ fl) -> ~ In c (ps (m s y)).
Proof.
  intros I HR Hc0 Hh. pose proof (root_counted _ _ _ _ _ _ I Hc0 HR) as Hc.
  pose proof (i_rc _ _ _ _ _ I c Hc) as Hrc. unfold refs in Hrc. rewrite cnt_app, Hh in Hrc.
  pose proof (cnt_in_pos _ _ HR). pose proof (cnt_nonneg (flat_map (fun x => ps (m s x)) (cl ++ fl)) c). split; [lia|].
  intros y Hy Hin. pose proof (cnt_flat_map_in (fun x => ps (m s x)) _ y c Hy Hin). lia.
Qed.

Lemma free_cases s R hl fl cl : Inv s R hl fl cl -> (free s = frontier s /\ fl = []) \/ In (free s) fl.
Proof.
  intros I. destruct (Z.eq_dec (free s) (frontier s)) as [E|E].
  - left. split; auto. pose proof (i_fl _ _ _ _ _ I) as Hc. rewrite E in Hc. now apply chain_stop_nil in Hc.
  - right. destruct (chain_nonstop _ _ _ _ (i_fl _ _ _ _ _ I) E) as (l & -> & _). now left.
Qed.
Lemma free_not_counted s R hl fl cl : Inv s R hl fl cl -> ~ In (free s) cl.
Proof.
  intros I Hin. destruct (free_cases _ _ _ _ _ I) as [[E _]|Hf].
  - pose proof (i_below _ _ _ _ _ I (free s) ltac:(rewrite !in_app_iff; auto)). lia.
  - destruct (proj1 (proj2 (nodup3 hl fl cl (free s) (i_nodup _ _ _ _ _ I))) Hf) as [_ N]. contradiction.
Qed.
Lemma heap_not_counted s R hl fl cl : Inv s R hl fl cl -> ~ In (heap s) cl /\ ~ In (heap s) fl.
Proof.
  intros I. destruct (heap_in_hl _ _ _ _ _ I) as (l & E).
  assert (In (heap s) hl) by (rewrite E; now left).
  destruct (proj2 (proj2 (nodup3 hl fl cl (heap s) (i_nodup _ _ _ _ _ I))) H). tauto.
Qed.
Lemma free_slot_cases s R hl fl cl c :
  Inv s R hl fl cl -> In c (ps (m s (free s))) -> In (free s) fl.
Proof.
  intros I Hin. destruct (free_cases _ _ _ _ _ I) as [[E _]|Hf]; auto.
  rewrite E, (i_fresh _ _ _ _ _ I (frontier s)) in Hin by lia. destruct Hin.
Qed.

Lemma reach_ext_on mm mm' R b :
  (forall x, reach mm R x -> ps (mm' x) = ps (mm x)) -> reach mm R b -> reach mm' R b.
Proof.
  intros H. induction 1 as [b Hb Hb0|x b Hx IH Hb Hb0]; [now apply reach_src|].
  eapply reach_slot; eauto. now rewrite H.
Qed.
Lemma reach_ext mm mm' R b : (forall x, ps (mm' x) = ps (mm x)) -> reach mm R b -> reach mm' R b.
Proof. intros H. apply reach_ext_on. auto. Qed.
Lemma reach_nonzero mm R b : reach mm R b -> b <> 0.
Proof. destruct 1; auto. Qed.
Lemma reach_trans mm R R' b : (forall r, In r R' -> r <> 0 -> reach mm R r) -> reach mm R' b -> reach mm R b.
Proof. intros H. induction 1 as [b Hb Hb0|x b Hx IH Hb Hb0]; [auto|eapply reach_slot; eauto]. Qed.
Lemma reach_root_counted s R hl fl cl b : Inv s R hl fl cl -> reach (m s) R b -> In b cl.
Proof. intros I Hr. eapply reach_counted; eauto. eapply reach_mono; [|exact Hr]. apply incl_appl, incl_refl. Qed.
Lemma reach_perm mm R R' b : Permutation R R' -> reach mm R b -> reach mm R' b.
Proof. intros HP. apply reach_mono. intros x Hx. eapply Permutation_in; eauto. Qed.
Lemma reach_nz mm R b : reach mm (nz R) b <-> reach mm R b.
Proof.
  split; intros H.
  - eapply reach_mono; [|exact H]. intros x Hx. apply in_nz in Hx. tauto.
  - eapply reach_trans; [|exact H]. intros r Hr Hr0. apply reach_src; auto. apply in_nz. auto.
Qed.

Definition KI (lk : lkmap) (s : st) (R : list Z) : Prop :=
  forall x, reach (m s) R x -> lk x <> O ->
    link_of (m s) x <> 0 /\ hdr (m s (link_of (m s) x)) = 0 /\ S (lk (link_of (m s) x)) = lk x.

Lemma KI_incl lk s R R' : (forall r, In r R' -> r <> 0 -> reach (m s) R r) -> KI lk s R -> KI lk s R'.
Proof. intros H K x Hx. apply K. eapply reach_trans; eauto. Qed.
Lemma KI_perm lk s R R' : Permutation R R' -> KI lk s R -> KI lk s R'.
Proof. intros HP. apply KI_incl. intros r Hr Hr0. apply reach_src; auto. eapply Permutation_in; [symmetry|]; eauto. Qed.

Lemma link_sole s R hl fl cl lk x :
  Inv s R hl fl cl -> KI lk s R -> reach (m s) R x -> lk x <> O ->
  let c := link_of (m s) x in
  c <> 0 /\ In c cl /\ hdr (m s c) = 0 /\ ~ In c R /\
  (forall y, In y (cl ++ fl) -> In c (ps (m s y)) -> y = x) /\ cnt (ps (m s x)) c = 1.
Proof.
  intros I K Hx Hl c. destruct (K x Hx Hl) as (Hc0 & Hh & _). fold c in Hc0, Hh.
  pose proof (reach_root_counted _ _ _ _ _ _ I Hx) as Hxc.
  assert (Hxin : In x (cl ++ fl)) by (rewrite in_app_iff; auto).
  assert (Hin : In c (ps (m s x))) by (apply link_in; exact Hc0).
  pose proof (child_counted _ _ _ _ _ x c I Hxin Hin Hc0) as Hc.
  destruct (sole_slot_ref s R hl fl cl c x I Hc Hh Hxin Hin) as (A & B & C). auto 10.
Qed.

Lemma KI_chain lk s R : KI lk s R -> forall k x, reach (m s) R x -> lk x = k ->
  links_ok k (m s) x /\ (forall b, In b (obj_blocks k (m s) x) -> b <> x -> hdr (m s b) = 0) /\
  (forall b, In b (obj_blocks k (m s) x) -> reach (m s) R b).
Proof.
  intros K. induction k as [|k IH]; intros x Hx Hk.
  - split; [|split].
    + intros b [<-|[]]. eapply reach_nonzero; eauto.
    + intros b [<-|[]] Hne. congruence.
    + intros b [<-|[]]. exact Hx.
  - destruct (K x Hx ltac:(lia)) as (Hc0 & Hh & Hl). set (c := link_of (m s) x) in *.
    assert (Hc : reach (m s) R c) by (eapply reach_slot; eauto; now apply link_in).
    destruct (IH c Hc ltac:(lia)) as (L1 & H1 & R1). cbn [obj_blocks]. fold c. split; [|split].
    + intros b [<-|Hb]; [eapply reach_nonzero; eauto|now apply L1].
    + intros b [<-|Hb] Hne; [congruence|]. destruct (Z.eq_dec b c) as [->|Hbc]; auto.
    + intros b [<-|Hb]; auto.
Qed.
Lemma KI_obj_ok lk s R x : KI lk s R -> reach (m s) R x -> hdr (m s x) = 0 -> obj_ok (lk x) (m s) x.
Proof.
  intros K Hx Hh. destruct (KI_chain lk s R K (lk x) x Hx eq_refl) as (L & H & _).
  intros b Hb. split; [now apply L|]. destruct (Z.eq_dec b x) as [->|Hne]; auto.
Qed.

Import AxSem.

Inductive rep (lk : lkmap) (mm : mem) : value -> Z -> Prop :=
| rep_int z : rep lk mm (VInt z) 0
| rep_obj ty tag fs p : rep_flds lk mm fs p -> rep lk mm (VObj ty tag fs) p
| rep_clo ty cls ce p : rep_flds lk mm (map snd ce) p -> rep lk mm (VClo ty cls ce) p
with rep_flds (lk : lkmap) (mm : mem) : list value -> Z -> Prop :=
| rf_nil : rep_flds lk mm [] 0
| rf_cons fs p j pl :
    fs <> [] -> lk p = nlinks (length fs) -> links_ok (lk p) mm p ->
    obj_fields (lk p) mm p = repeat 0 j ++ pl -> reps lk mm fs pl -> rep_flds lk mm fs p
with reps (lk : lkmap) (mm : mem) : list value -> list Z -> Prop :=
| reps_nil : reps lk mm [] []
| reps_cons v vs p pl : rep lk mm v p -> reps lk mm vs pl -> reps lk mm (v :: vs) (p :: pl).

Scheme rep_ind3 := Induction for rep Sort Prop
  with rep_flds_ind3 := Induction for rep_flds Sort Prop
  with reps_ind3 := Induction for reps Sort Prop.
Combined Scheme rep_mutind from rep_ind3, rep_flds_ind3, reps_ind3.

Lemma reps_length lk mm vs pl : reps lk mm vs pl -> length pl = length vs.
Proof. induction 1; cbn; auto. Qed.
Lemma reps_app lk mm : forall v1 p1 v2 p2, reps lk mm v1 p1 -> reps lk mm v2 p2 -> reps lk mm (v1 ++ v2) (p1 ++ p2).
Proof. induction 1; cbn; auto. intros. constructor; auto. Qed.
Lemma reps_app_inv lk mm : forall v1 v2 pl, reps lk mm (v1 ++ v2) pl ->
  exists p1 p2, pl = p1 ++ p2 /\ reps lk mm v1 p1 /\ reps lk mm v2 p2.
Proof.
  induction v1 as [|v v1 IH]; intros v2 pl H; cbn in *.
  - exists [], pl. split; [reflexivity|split; [constructor|assumption]].
  - inversion H; subst. destruct (IH _ _ H4) as (p1 & p2 & -> & A & B). exists (p :: p1), p2. split; [reflexivity|split; [constructor; auto|auto]].
Qed.

Lemma obj_blocks_reach mm : forall k p b, links_ok k mm p -> In b (obj_blocks k mm p) -> reach mm [p] b.
Proof.
  induction k as [|k IH]; intros p b HL Hb; cbn [obj_blocks] in Hb.
  - destruct Hb as [<-|[]]. apply reach_src; [now left|]. apply HL. now left.
  - assert (Hp0 : p <> 0) by (apply HL; now left).
    destruct Hb as [<-|Hb]; [apply reach_src; auto; now left|].
    assert (Hq0 : link_of mm p <> 0) by (apply HL; cbn [obj_blocks]; right; destruct k; now left).
    eapply reach_trans; [|apply (IH (link_of mm p) b); auto].
    + intros r [<-|[]] _. eapply reach_slot; [apply reach_src; [now left|exact Hp0]|now apply link_in|exact Hq0].
    + intros b' Hb'. apply HL. cbn [obj_blocks]. now right.
Qed.
Lemma obj_fields_blocks mm : forall k p c, In c (obj_fields k mm p) -> exists b, In b (obj_blocks k mm p) /\ In c (ps (mm b)).
Proof.
  induction k as [|k IH]; intros p c Hc; cbn [obj_fields obj_blocks] in *.
  - exists p. split; [now left|exact Hc].
  - apply in_app_iff in Hc as [Hc|Hc].
    + exists p. split; [now left|now apply fields_in].
    + destruct (IH _ _ Hc) as (b & Hb & Hin). exists b. split; [now right|exact Hin].
Qed.
Lemma obj_fields_reach mm k p c : links_ok k mm p -> In c (obj_fields k mm p) -> c <> 0 -> reach mm [p] c.
Proof.
  intros HL Hc Hc0. destruct (obj_fields_blocks mm k p c Hc) as (b & Hb & Hin).
  eapply reach_slot; [eapply obj_blocks_reach; eauto|exact Hin|exact Hc0].
Qed.

Lemma obj_blocks_ext_on mm mm' : forall k p,
  (forall b, In b (obj_blocks k mm p) -> ps (mm' b) = ps (mm b)) -> obj_blocks k mm' p = obj_blocks k mm p.
Proof.
  induction k as [|k IH]; intros p H; cbn [obj_blocks]; auto. f_equal.
  assert (E : link_of mm' p = link_of mm p) by (unfold link_of; rewrite H; [reflexivity|now left]).
  rewrite E. apply IH. intros b Hb. apply H. cbn [obj_blocks]. now right.
Qed.
Lemma obj_fields_ext_on mm mm' : forall k p,
  (forall b, In b (obj_blocks k mm p) -> ps (mm' b) = ps (mm b)) -> obj_fields k mm' p = obj_fields k mm p.
Proof.
  induction k as [|k IH]; intros p H; cbn [obj_fields].
  - apply H. now left.
  - assert (E : ps (mm' p) = ps (mm p)) by (apply H; now left).
    unfold fields_of, link_of. rewrite E. f_equal. apply IH. intros b Hb. apply H. cbn [obj_blocks]. unfold link_of. now right.
Qed.
Lemma links_ok_ext_on mm mm' k p :
  (forall b, In b (obj_blocks k mm p) -> ps (mm' b) = ps (mm b)) -> links_ok k mm p -> links_ok k mm' p.
Proof. intros H HL b Hb. rewrite (obj_blocks_ext_on mm mm' k p H) in Hb. now apply HL. Qed.

Lemma rep_frame_mut lk lk' mm mm' :
  (forall v p, rep lk mm v p ->
     (forall b, reach mm [p] b -> ps (mm' b) = ps (mm b) /\ lk' b = lk b) -> rep lk' mm' v p) /\
  (forall fs p, rep_flds lk mm fs p ->
     (forall b, reach mm [p] b -> ps (mm' b) = ps (mm b) /\ lk' b = lk b) -> rep_flds lk' mm' fs p) /\
  (forall vs pl, reps lk mm vs pl ->
     (forall b, reach mm pl b -> ps (mm' b) = ps (mm b) /\ lk' b = lk b) -> reps lk' mm' vs pl).
Proof.
  apply rep_mutind.
  - intros z _. constructor.
  - intros ty tag fs p _ IH H. constructor. auto.
  - intros ty cls ce p _ IH H. constructor. auto.
  - intros _. constructor.
  - intros fs p j pl Hne Hlk HL HF _ IH H.
    assert (Hp0 : p <> 0) by (exact (links_ok_head (lk p) mm p HL)).
    assert (Hp : reach mm [p] p) by (apply reach_src; auto; now left).
    assert (Elk : lk' p = lk p) by (apply H; exact Hp).
    assert (Eps : forall b, In b (obj_blocks (lk p) mm p) -> ps (mm' b) = ps (mm b)).
    { intros b Hb. apply H. eapply obj_blocks_reach; eauto. }
    apply (rf_cons lk' mm' fs p j pl).
    + exact Hne.
    + congruence.
    + rewrite Elk. eapply links_ok_ext_on; eauto.
    + rewrite Elk, (obj_fields_ext_on mm mm' (lk p) p Eps). exact HF.
    + apply IH. intros b Hb. apply H. eapply reach_trans; [|exact Hb].
      intros r Hr Hr0. eapply obj_fields_reach; eauto. rewrite HF, in_app_iff. now right.
  - intros _. constructor.
  - intros v vs p pl _ IH1 _ IH2 H. constructor.
    + apply IH1. intros b Hb. apply H. eapply reach_mono; [|exact Hb]. intros x [<-|[]]. now left.
    + apply IH2. intros b Hb. apply H. eapply reach_mono; [|exact Hb]. intros x Hx. now right.
Qed.
Lemma rep_frame lk lk' mm mm' v p :
  rep lk mm v p -> (forall b, reach mm [p] b -> ps (mm' b) = ps (mm b) /\ lk' b = lk b) -> rep lk' mm' v p.
Proof. intros H. now apply (proj1 (rep_frame_mut lk lk' mm mm')). Qed.
Lemma reps_frame lk lk' mm mm' vs pl :
  reps lk mm vs pl -> (forall b, reach mm pl b -> ps (mm' b) = ps (mm b) /\ lk' b = lk b) -> reps lk' mm' vs pl.
Proof. intros H. now apply (proj2 (proj2 (rep_frame_mut lk lk' mm mm'))). Qed.
(* operations that write headers only *)
Lemma rep_ext lk mm mm' v p : (forall b, ps (mm' b) = ps (mm b)) -> rep lk mm v p -> rep lk mm' v p.
Proof. intros H R. eapply rep_frame; eauto. Qed.
Lemma reps_ext lk mm mm' vs pl : (forall b, ps (mm' b) = ps (mm b)) -> reps lk mm vs pl -> reps lk mm' vs pl.
Proof. intros H R. eapply reps_frame; eauto. Qed.

Lemma share_list_hdr_other l : forall s x, ~ In x l -> hdr (m (share_list l s) x) = hdr (m s x).
Proof.
  unfold share_list. induction l as [|c l IH]; intros s x Hx; cbn [fold_left]; auto.
  rewrite IH by (intro; apply Hx; now right). apply share_hdr_other. intro; apply Hx; now left.
Qed.

Lemma KI_share lk s R hl fl cl p n :
  Inv s R hl fl cl -> KI lk s R -> (p = 0 \/ In p R) ->
  KI lk (share p n s) (if p =? 0 then R else repeat p (Z.to_nat n) ++ R).
Proof.
  intros I K Hp x Hx Hl.
  assert (Hx0 : reach (m s) R x).
  { apply (reach_ext (m (share p n s)) (m s)) in Hx; [|intros; symmetry; apply share_ps].
    eapply reach_trans; [|exact Hx]. intros r Hr Hr0. apply reach_src; auto.
    destruct (p =? 0); auto. apply in_app_iff in Hr as [Hr|Hr]; auto. apply repeat_spec in Hr. subst. destruct Hp; [contradiction|auto]. }
  destruct (link_sole s R hl fl cl lk x I K Hx0 Hl) as (Hc0 & Hc & Hh & HnR & _).
  destruct (K x Hx0 Hl) as (_ & _ & Hlk).
  unfold link_of in *. rewrite share_ps. split; [exact Hc0|split; [|exact Hlk]].
  rewrite share_hdr_other; auto. intros E. destruct Hp as [->|HpR]; [congruence|]. rewrite E in HnR. contradiction.
Qed.

Lemma KI_erase lk s R R0 hl fl cl p :
  Inv s R hl fl cl -> KI lk s R -> p <> 0 -> Permutation R (p :: R0) -> KI lk (erase p s) R0.
Proof.
  intros I K Hp0 HP x Hx Hl.
  assert (HpR : In p R) by (eapply Permutation_in; [symmetry; exact HP|now left]).
  assert (Hx0 : reach (m s) R x).
  { apply (reach_ext (m (erase p s)) (m s)) in Hx; [|intros; symmetry; apply erase_ps].
    eapply reach_mono; [|exact Hx]. intros r Hr. eapply Permutation_in; [symmetry; exact HP|now right]. }
  destruct (link_sole s R hl fl cl lk x I K Hx0 Hl) as (Hc0 & Hc & Hh & HnR & _).
  destruct (K x Hx0 Hl) as (_ & _ & Hlk).
  unfold link_of in *. rewrite erase_ps. split; [exact Hc0|split; [|exact Hlk]].
  rewrite erase_hdr_other; auto. intros E. rewrite E in HnR. contradiction.
Qed.
