(* Proof/Fun2CoreTyBase  -  basic facts about the typing guard [tg] of Model/Fun2CoreTyGuard.v:
   - one unfolding equation per term form (the nested list traversals as [tg_args] / [tg_clauses] /
     [tg_coclauses]);
   - [tg_ext]: the guard of a term only depends on the bindings of its FREE names;
   - equations for [fv_fterm] on the forms with nested lists;
   - Section Risk: [cont_cl] (the names a clause leaves visible to the continuation) and the equations of the capture
     detector [shadowing_risk], which no proof of the typing theorem needs since the guard has no capture clause. *)
From Coq Require Import List ZArith NArith String Bool Lia.
From SCC Require Import Base.Sexp Lang.SynUtil Lang.FunSyn Lang.FunTy Lang.CoreSyn.
From SCC Require Import Sem.AxSem Sem.FunSem Sem.FsCheck Sem.CoreCheck Model.Fun2Core Model.Fun2CoreGuard Model.Fun2CoreTyGuard.
From SCC Require Import Proof.Fun2CoreProof Proof.Fun2CoreTfv Proof.Fun2CoreInv Proof.CoreTyRules.
Import ListNotations.
Open Scope string_scope.
Open Scope list_scope.

Arguments var_ok : simpl never.

Lemma gl_clookup : forall G x, gl G x = clookup G x.
Proof. induction G as [|b r IH]; intros x; simpl; [reflexivity|]. destruct (cident_eqb (cbvar b) x); [reflexivity | apply IH]. Qed.

Lemma var_ok_look : forall G v ty chi, var_ok G v ty chi = true ->
  exists ty0, ty = Some ty0 /\ clookup G (new_id v) = Some (mkcb (new_id v) chi (compile_ty ty0)).
Proof. intros G v ty chi H. apply var_ok_inv in H. destruct H as [ty0 [E H]]. rewrite gl_clookup in H. eauto. Qed.

Lemma var_ok_ext : forall G1 G2 v ty chi, clookup G1 (new_id v) = clookup G2 (new_id v) ->
  var_ok G1 v ty chi = var_ok G2 v ty chi.
Proof. intros G1 G2 v ty chi H. unfold var_ok. rewrite !gl_clookup, H. reflexivity. Qed.

Lemma split_last_spec : forall l pre last, split_last l = Some (pre, last) -> l = pre ++ [last].
Proof.
  induction l as [|b r IH]; intros pre last H; simpl in H; [discriminate|].
  destruct r as [|b' r'].
  - injection H as <- <-. reflexivity.
  - destruct (split_last (b' :: r')) as [[pre' last']|] eqn:E; [|discriminate].
    injection H as <- <-. rewrite (IH _ _ eq_refl). reflexivity.
Qed.

Definition fv_cl (c : fclause) : list string :=
  match c with FClause _ _ _ ctx body => remove_all (fvars ctx) (fv_fterm body) end.
Lemma fv_call : forall f args r, fv_fterm (FCall f args r) = flat_map fv_fterm args.
Proof. reflexivity. Qed.
Lemma fv_ctor : forall f args r, fv_fterm (FCtor f args r) = flat_map fv_fterm args.
Proof. reflexivity. Qed.
Lemma fv_dtor : forall s x ta args r, fv_fterm (FDtor s x ta args r) = fv_fterm s ++ flat_map fv_fterm args.
Proof. reflexivity. Qed.
Lemma fv_cls_eq : forall cls,
  (fix go (l : list fclause) : list string :=
     match l with
     | [] => []
     | FClause _ _ _ ctx body :: r => remove_all (fvars ctx) (fv_fterm body) ++ go r
     end) cls = flat_map fv_cl cls.
Proof. induction cls as [|[pl x names ctx body] r IH]; simpl; [reflexivity | rewrite IH; reflexivity]. Qed.
Lemma fv_case : forall s ta cls r, fv_fterm (FCase s ta cls r) = fv_fterm s ++ flat_map fv_cl cls.
Proof. intros. cbn [fv_fterm]. rewrite fv_cls_eq. reflexivity. Qed.
Lemma fv_new : forall cls r, fv_fterm (FNew cls r) = flat_map fv_cl cls.
Proof. intros. cbn [fv_fterm]. rewrite fv_cls_eq. reflexivity. Qed.

Lemma remove_all_In : forall xs l x, In x (remove_all xs l) <-> In x l /\ ~ In x xs.
Proof.
  intros xs l x. unfold remove_all. rewrite filter_In, negb_true_iff. rewrite mem_false_not_In. tauto.
Qed.

Lemma cvars_compile_ctx : forall ctx, cvars (compile_ctx ctx) = map new_id (fvars ctx).
Proof. induction ctx as [|b r IH]; simpl; [reflexivity | rewrite IH; reflexivity]. Qed.
Lemma compile_ctx_nodup : forall ctx, nodup_str (fvars ctx) = true -> NoDup (cvars (compile_ctx ctx)).
Proof.
  intros ctx. rewrite cvars_compile_ctx. induction (fvars ctx) as [|x r IH]; simpl; intros H; constructor.
  - apply andb_prop in H. destruct H as [H _]. apply negb_true_iff in H. intros Hin. apply in_map_iff in Hin.
    destruct Hin as [y [Ey Hy]]. apply new_id_inj in Ey. subst y. exact (proj1 (mem_false_not_In _ _) H Hy).
  - apply IH. apply andb_prop in H. tauto.
Qed.
(* the parameters followed by one more whose name is not among them (the return continuation, a fresh covariable) *)
Lemma compile_ctx_snoc_nodup : forall ctx a chi ty, nodup_str (fvars ctx) = true -> ~ In a (fvars ctx) ->
  NoDup (cvars (compile_ctx ctx ++ [mkcb (new_id a) chi ty])).
Proof.
  intros ctx a chi ty Hnd Hn. unfold cvars. rewrite map_app. fold (cvars (compile_ctx ctx)). simpl.
  apply NoDup_app_intro.
  - apply compile_ctx_nodup. exact Hnd.
  - repeat constructor. intros [].
  - intros z Hz [Hz'|[]]. subst z. rewrite cvars_compile_ctx in Hz. apply in_map_iff in Hz. destruct Hz as [y [Ey Hy]].
    apply new_id_inj in Ey. subst y. contradiction.
Qed.
Lemma clookup_compile_ctx_none : forall ctx a, ~ In a (fvars ctx) -> clookup (compile_ctx ctx) (new_id a) = None.
Proof.
  intros ctx a Hn. apply clookup_none. rewrite cvars_compile_ctx. intros Hin. apply in_map_iff in Hin.
  destruct Hin as [y [Ey Hy]]. apply new_id_inj in Ey. subst y. contradiction.
Qed.

Section Base.
  Variable p : fcprog.
  Variables data codata : list ctydecl.
  Notation tg := (tg p data codata).
  Notation tg_arg := (tg_arg p data codata).
  Notation tg_args := (tg_args p data codata).
  Notation tg_clause := (tg_clause p data codata).
  Notation tg_clauses := (tg_clauses p data codata).
  Notation tg_coclause := (tg_coclause p data codata).
  Notation tg_coclauses := (tg_coclauses p data codata).
  Notation tyd := (tyd data codata).
  Notation ann_ok := (ann_ok data codata).

  Lemma has_ty_tyo : forall t ty, has_ty t ty = true -> tyo t = Some ty.
  Proof. intros t ty H. unfold has_ty in H. destruct (tyo t) as [ty'|]; [|discriminate]. apply ceq_ty in H. subst. reflexivity. Qed.
  Lemma tyo_has_ty : forall t ty, tyo t = Some ty -> has_ty t ty = true.
  Proof. intros t ty H. unfold has_ty. rewrite H. apply ceq_ty_refl. Qed.
  Lemma same_ty_tyo : forall t o, same_ty t o = true -> exists ty0, o = Some ty0 /\ tyo t = Some (compile_ty ty0).
  Proof. intros t [ty0|] H; simpl in H; [|discriminate]. exists ty0. split; [reflexivity | apply has_ty_tyo; exact H]. Qed.
  Lemma tyo_fterm_type : forall t ty, tyo t = Some ty -> exists ty0, fterm_type t = Some ty0 /\ ty = compile_ty ty0.
  Proof. intros t ty H. unfold tyo in H. destruct (fterm_type t) as [ty0|]; [|discriminate]. injection H as H. eauto. Qed.
  Lemma ann_ok_inv : forall o, ann_ok o = true -> exists ty0, o = Some ty0 /\ tyd (compile_ty ty0) = true.
  Proof. intros [ty0|] H; simpl in H; [eauto | discriminate]. Qed.

  Lemma tg_var : forall G v ty chi, tg G (FVar v ty chi) = var_ok G v ty CPrd.
  Proof. reflexivity. Qed.
  Lemma tg_op : forall G a o b, tg G (FOp a o b) = tg G a && tg G b && has_ty a CI64 && has_ty b CI64.
  Proof. reflexivity. Qed.
  Lemma tg_ifc : forall G s a b t1 t2 ty, tg G (FIfC s a b t1 t2 ty) =
    tg G a && has_ty a CI64
    && (match b with Some b' => tg G b' && has_ty b' CI64 | None => true end)
    && tg G t1 && tg G t2 && same_ty t1 ty && same_ty t2 ty.
  Proof. reflexivity. Qed.
  Lemma tg_print : forall G nl a next ty, tg G (FPrint nl a next ty) =
    tg G a && has_ty a CI64 && tg G next && same_ty next ty.
  Proof. reflexivity. Qed.
  Lemma tg_let : forall G v vty bound body ty, tg G (FLet v vty bound body ty) =
    tg G bound && has_ty bound (compile_ty vty) && tyd (compile_ty vty)
    && tg (mkcb (new_id v) CPrd (compile_ty vty) :: G) body && same_ty body ty.
  Proof. reflexivity. Qed.
  Lemma tg_call : forall G f args ret, tg G (FCall f args ret) =
    (negb (String.eqb f "main") || calls_main_prog p)
    && match ffind_def p f, ret with
       | Some d, Some r =>
           tg_args G args (compile_ctx (fdctx d))
           && cty_eqb (compile_ty r) (compile_ty (fdret d)) && tyd (compile_ty r)
       | _, _ => false
       end.
  Proof. reflexivity. Qed.
  Lemma tg_ctor : forall G x args ty, tg G (FCtor x args ty) =
    match tyo (FCtor x args ty) with
    | Some (CDecl n) =>
        match find_decl data n with
        | Some d => match find_cxtor d (new_id x) with Some sg => tg_args G args (cxargs sg) | None => false end
        | None => false
        end
    | _ => false
    end.
  Proof. reflexivity. Qed.
  Lemma tg_dtor : forall G scrut x ta args ty, tg G (FDtor scrut x ta args ty) =
    tg G scrut
    && match tyo scrut with
       | Some (CDecl n) =>
           match find_decl codata n with
           | Some d =>
               match find_cxtor d (new_id x) with
               | Some sg =>
                   match split_last (cxargs sg) with
                   | Some (pre, last) =>
                       tg_args G args pre && cchi_eqb (cbchi last) CCns && has_ty (FDtor scrut x ta args ty) (cbty last)
                   | None => false
                   end
               | None => false
               end
           | None => false
           end
       | _ => false
       end.
  Proof. reflexivity. Qed.
  Lemma tg_case : forall G scrut ta cls ty, tg G (FCase scrut ta cls ty) =
    tg G scrut
    && match tyo scrut with
       | Some (CDecl n) =>
           match find_decl data n with
           | Some d => tg_clauses G ty cls (ctxtors d)
           | None => false
           end
       | _ => false
       end.
  Proof. reflexivity. Qed.
  Lemma tg_new : forall G cls ty, tg G (FNew cls ty) =
    match tyo (FNew cls ty) with
    | Some (CDecl n) =>
        match find_decl codata n with
        | Some d => tg_coclauses G cls (ctxtors d)
        | None => false
        end
    | _ => false
    end.
  Proof. reflexivity. Qed.
  Lemma tg_label : forall G l t' ty, tg G (FLabel l t' ty) =
    match ty with
    | Some ty0 =>
        tyd (compile_ty ty0) && tg (mkcb (new_id l) CCns (compile_ty ty0) :: G) t' && has_ty t' (compile_ty ty0)
    | None => false
    end.
  Proof. reflexivity. Qed.
  Lemma tg_goto : forall G l t' ty, tg G (FGoto l t' ty) =
    var_ok G l (fterm_type t') CCns && ann_ok (fterm_type t') && tg G t'.
  Proof. reflexivity. Qed.
  Lemma tg_exit : forall G a ty, tg G (FExit a ty) = tg G a && has_ty a CI64 && ann_ok ty.
  Proof. reflexivity. Qed.
  Lemma tg_paren : forall G t', tg G (FParen t') = tg G t'.
  Proof. reflexivity. Qed.

  Lemma tg_args_cons : forall G y r b sr, tg_args G (y :: r) (b :: sr) = tg_arg G y b && tg_args G r sr.
  Proof. reflexivity. Qed.
  Lemma tg_clauses_cons : forall G ty c r sg xr,
    tg_clauses G ty (c :: r) (sg :: xr) = tg_clause G ty c sg && tg_clauses G ty r xr.
  Proof. reflexivity. Qed.
  Lemma tg_coclauses_cons : forall G c r sg xr,
    tg_coclauses G (c :: r) (sg :: xr) = tg_coclause G c sg && tg_coclauses G r xr.
  Proof. reflexivity. Qed.

  (* what the clauses of a case and of a new have in common: the body is guarded under the parameters *)
  Definition clause_guarded (G : cctx) (c : fclause) : Prop :=
    match c with FClause _ _ names ctx body =>
      list_eqb String.eqb names (fvars ctx) = true /\ tg (compile_ctx ctx ++ G) body = true end.
  Lemma tg_clauses_guarded : forall G ty cls xs, tg_clauses G ty cls xs = true -> Forall (clause_guarded G) cls.
  Proof.
    intros G ty. induction cls as [|[pl x names ctx body] r IH]; intros [|sg xr] H; try discriminate; constructor.
    - rewrite tg_clauses_cons in H. unfold Fun2CoreTyGuard.tg_clause in H.
      apply andb_prop in H as [[[[[[Hn _]%andb_prop _]%andb_prop _]%andb_prop Hb]%andb_prop _]%andb_prop _]. split; assumption.
    - rewrite tg_clauses_cons in H. apply andb_prop in H. destruct H as [_ H]. exact (IH xr H).
  Qed.
  Lemma tg_coclauses_guarded : forall G cls xs, tg_coclauses G cls xs = true -> Forall (clause_guarded G) cls.
  Proof.
    intros G. induction cls as [|[pl x names ctx body] r IH]; intros [|sg xr] H; try discriminate; constructor.
    - rewrite tg_coclauses_cons in H. unfold Fun2CoreTyGuard.tg_coclause in H.
      apply andb_prop in H as [[[[[Hn _]%andb_prop _]%andb_prop _]%andb_prop Hb]%andb_prop _]. split; assumption.
    - rewrite tg_coclauses_cons in H. apply andb_prop in H. destruct H as [_ H]. exact (IH xr H).
  Qed.

  (* the guard only depends on the bindings of the free names *)
  Definition same_on (l : list string) (G1 G2 : cctx) : Prop :=
    forall x, In x l -> clookup G1 (new_id x) = clookup G2 (new_id x).
  Lemma same_on_incl : forall l l' G1 G2, same_on l G1 G2 -> incl l' l -> same_on l' G1 G2.
  Proof. intros l l' G1 G2 H Hi x Hx. apply H. apply Hi. exact Hx. Qed.
  Lemma same_on_app : forall A l G1 G2, same_on (remove_all (map (fun b => fst (cbvar b)) A) l) G1 G2 ->
    (forall b, In b A -> cbvar b = new_id (fst (cbvar b))) -> same_on l (A ++ G1) (A ++ G2).
  Proof.
    intros A l G1 G2 H Hid x Hx. rewrite !clookup_app.
    destruct (clookup A (new_id x)) as [b|] eqn:E; [reflexivity|].
    apply H. apply remove_all_In. split; [exact Hx|]. intros Hin. apply in_map_iff in Hin.
    destruct Hin as [b [Eb Hb]]. apply clookup_none in E. apply E. apply in_map_iff. exists b. split; [|exact Hb].
    rewrite (Hid b Hb), Eb. reflexivity.
  Qed.
  Lemma same_on_cons : forall b l G1 G2 v, cbvar b = new_id v -> same_on (remove_all [v] l) G1 G2 ->
    same_on l (b :: G1) (b :: G2).
  Proof.
    intros b l G1 G2 v Hb H. apply (same_on_app [b] l G1 G2).
    - simpl. rewrite Hb. exact H.
    - intros b' [<-|[]]. rewrite Hb. reflexivity.
  Qed.
  Lemma compile_ctx_ids : forall ctx b, In b (compile_ctx ctx) -> cbvar b = new_id (fst (cbvar b)).
  Proof. intros ctx b H. unfold compile_ctx in H. apply in_map_iff in H. destruct H as [fb [<- _]]. reflexivity. Qed.
  Lemma compile_ctx_names : forall ctx, map (fun b => fst (cbvar b)) (compile_ctx ctx) = fvars ctx.
  Proof. induction ctx as [|b r IH]; simpl; [reflexivity | rewrite IH; reflexivity]. Qed.

  (* the statement of [tg_ext], as induction predicate *)
  Definition GE (t : fterm) : Prop := forall G1 G2, same_on (fv_fterm t) G1 G2 -> tg G1 t = tg G2 t.

  Lemma ge_args : forall args, Forall GE args -> forall G1 G2 sig,
    same_on (flat_map fv_fterm args) G1 G2 -> tg_args G1 args sig = tg_args G2 args sig.
  Proof.
    intros args H G1 G2. induction H as [|y r Hy Hr IH]; intros sig Hs; destruct sig as [|b sr]; try reflexivity.
    rewrite !tg_args_cons. f_equal.
    - unfold Fun2CoreTyGuard.tg_arg. destruct (cbchi b).
      + rewrite (Hy G1 G2); [reflexivity|]. eapply same_on_incl; [exact Hs|]. intros z Hz. simpl. apply in_or_app. left. exact Hz.
      + destruct y; try reflexivity. destruct chi as [[|]|]; try reflexivity.
        rewrite (var_ok_ext G1 G2); [reflexivity|]. apply Hs. simpl. left. reflexivity.
    - apply IH. eapply same_on_incl; [exact Hs|]. intros z Hz. simpl. apply in_or_app. right. exact Hz.
  Qed.
  Lemma ge_clauses : forall cls, Forall (fun c => GE (clause_body c)) cls -> forall G1 G2 ty xs,
    same_on (flat_map fv_cl cls) G1 G2 -> tg_clauses G1 ty cls xs = tg_clauses G2 ty cls xs.
  Proof.
    intros cls H G1 G2 ty. induction H as [|c r Hc Hr IH]; intros xs Hs; destruct xs as [|sg xr]; try reflexivity.
    rewrite !tg_clauses_cons. f_equal.
    - destruct c as [pl x names ctx body]. unfold Fun2CoreTyGuard.tg_clause. simpl in Hc.
      rewrite (Hc (compile_ctx ctx ++ G1) (compile_ctx ctx ++ G2)); [reflexivity|].
      apply same_on_app; [|apply compile_ctx_ids]. rewrite compile_ctx_names.
      eapply same_on_incl; [exact Hs|]. intros z Hz. simpl. apply in_or_app. left. exact Hz.
    - apply IH. eapply same_on_incl; [exact Hs|]. intros z Hz. simpl. apply in_or_app. right. exact Hz.
  Qed.
  Lemma ge_coclauses : forall cls, Forall (fun c => GE (clause_body c)) cls -> forall G1 G2 xs,
    same_on (flat_map fv_cl cls) G1 G2 -> tg_coclauses G1 cls xs = tg_coclauses G2 cls xs.
  Proof.
    intros cls H G1 G2. induction H as [|c r Hc Hr IH]; intros xs Hs; destruct xs as [|sg xr]; try reflexivity.
    rewrite !tg_coclauses_cons. f_equal.
    - destruct c as [pl x names ctx body]. unfold Fun2CoreTyGuard.tg_coclause. simpl in Hc.
      rewrite (Hc (compile_ctx ctx ++ G1) (compile_ctx ctx ++ G2)); [reflexivity|].
      apply same_on_app; [|apply compile_ctx_ids]. rewrite compile_ctx_names.
      eapply same_on_incl; [exact Hs|]. intros z Hz. simpl. apply in_or_app. left. exact Hz.
    - apply IH. eapply same_on_incl; [exact Hs|]. intros z Hz. simpl. apply in_or_app. right. exact Hz.
  Qed.

  (* [same_on] for a sub-term: its free names are among those of the term *)
  Ltac sub_on Hs := eapply same_on_incl; [exact Hs|]; let z := fresh "z" in let Hz := fresh "Hz" in
    intros z Hz; simpl; rewrite ?in_app_iff; simpl; tauto.

  Theorem tg_ext : forall t, GE t.
  Proof.
    induction t using fterm_ind'; intros G1 G2 Hs.
    - rewrite !tg_var. rewrite (var_ok_ext G1 G2); [reflexivity|]. apply Hs. left. reflexivity.
    - reflexivity.
    - rewrite !tg_op. rewrite (IHt1 G1 G2), (IHt2 G1 G2); [reflexivity | sub_on Hs | sub_on Hs].
    - rewrite !tg_ifc. rewrite (IHt1 G1 G2), (IHt2 G1 G2), (IHt3 G1 G2); [| sub_on Hs | sub_on Hs | sub_on Hs].
      destruct b as [b'|]; [|reflexivity]. simpl in H. rewrite (H G1 G2); [reflexivity | sub_on Hs].
    - rewrite !tg_print. rewrite (IHt1 G1 G2), (IHt2 G1 G2); [reflexivity | sub_on Hs | sub_on Hs].
    - rewrite !tg_let. rewrite (IHt1 G1 G2); [|sub_on Hs].
      rewrite (IHt2 (mkcb (new_id v) CPrd (compile_ty vty) :: G1) (mkcb (new_id v) CPrd (compile_ty vty) :: G2)); [reflexivity|].
      apply (same_on_cons _ _ _ _ v); [reflexivity|]. sub_on Hs.
    - rewrite !tg_call. destruct (ffind_def p f) as [d|]; [|reflexivity]. destruct ret as [r|]; [|reflexivity].
      rewrite (ge_args args H G1 G2); [reflexivity|]. rewrite fv_call in Hs. exact Hs.
    - rewrite !tg_ctor. destruct (tyo (FCtor x args ty)) as [[|n]|]; try reflexivity.
      destruct (find_decl data n) as [d|]; [|reflexivity]. destruct (find_cxtor d (new_id x)) as [sg|]; [|reflexivity].
      apply (ge_args args H G1 G2). rewrite fv_ctor in Hs. exact Hs.
    - rewrite !tg_dtor. rewrite fv_dtor in Hs. rewrite (IHt G1 G2); [|sub_on Hs].
      destruct (tyo t) as [[|n]|]; try reflexivity.
      destruct (find_decl codata n) as [d|]; [|reflexivity]. destruct (find_cxtor d (new_id x)) as [sg|]; [|reflexivity].
      destruct (split_last (cxargs sg)) as [[pre last]|]; [|reflexivity].
      rewrite (ge_args args H G1 G2); [reflexivity|]. eapply same_on_incl; [exact Hs|]. intros z Hz. apply in_or_app. right. exact Hz.
    - rewrite !tg_case. rewrite fv_case in Hs. rewrite (IHt G1 G2); [|sub_on Hs].
      destruct (tyo t) as [[|n]|]; try reflexivity. destruct (find_decl data n) as [d|]; [|reflexivity].
      rewrite (ge_clauses cls H G1 G2); [reflexivity|]. eapply same_on_incl; [exact Hs|]. intros z Hz. apply in_or_app. right. exact Hz.
    - rewrite !tg_new. rewrite fv_new in Hs. destruct (tyo (FNew cls ty)) as [[|n]|]; try reflexivity.
      destruct (find_decl codata n) as [d|]; [|reflexivity]. apply (ge_coclauses cls H G1 G2). exact Hs.
    - rewrite !tg_label. destruct ty as [ty0|]; [|reflexivity].
      rewrite (IHt (mkcb (new_id l) CCns (compile_ty ty0) :: G1) (mkcb (new_id l) CCns (compile_ty ty0) :: G2)); [reflexivity|].
      apply (same_on_cons _ _ _ _ l); [reflexivity|]. exact Hs.
    - rewrite !tg_goto. rewrite (IHt G1 G2); [|sub_on Hs]. rewrite (var_ok_ext G1 G2); [reflexivity|]. apply Hs. left. reflexivity.
    - rewrite !tg_exit. rewrite (IHt G1 G2); [reflexivity | exact Hs].
    - rewrite !tg_paren. apply IHt. exact Hs.
  Qed.
End Base.

Section Risk.
  Variable cd : fty -> bool.
  Definition risk_cl (S : list string) (c : fclause) : bool :=
    match c with FClause _ _ _ ctx body => inter_nonempty (fvars ctx) S || shadowing_risk cd body S end.
  Definition cont_cl (S : list string) (c : fclause) : list string :=
    match c with FClause _ _ _ ctx body => remove_all (fvars ctx) (fv_fterm body ++ S) end.
  Lemma risk_call : forall f args r S,
    shadowing_risk cd (FCall f args r) S = existsb (fun y => shadowing_risk cd y []) args.
  Proof. reflexivity. Qed.
  Lemma risk_ctor : forall f args r S,
    shadowing_risk cd (FCtor f args r) S = existsb (fun y => shadowing_risk cd y []) args.
  Proof. reflexivity. Qed.
  Lemma risk_dtor : forall s x ta args r S, shadowing_risk cd (FDtor s x ta args r) S =
    existsb (fun y => shadowing_risk cd y []) args || shadowing_risk cd s (flat_map fv_fterm args ++ S).
  Proof. reflexivity. Qed.
  Lemma risk_case : forall s ta cls r S, shadowing_risk cd (FCase s ta cls r) S =
    existsb (risk_cl S) cls || shadowing_risk cd s (flat_map (cont_cl S) cls).
  Proof.
    intros. cbn [shadowing_risk]. f_equal.
    - induction cls as [|[pl x names ctx body] l IH]; simpl; [reflexivity | rewrite IH; reflexivity].
    - f_equal. induction cls as [|[pl x names ctx body] l IH]; simpl; [reflexivity | rewrite IH; reflexivity].
  Qed.
  Lemma risk_new : forall cls r S, shadowing_risk cd (FNew cls r) S =
    existsb (fun c => shadowing_risk cd (clause_body c) []) cls.
  Proof.
    intros. cbn [shadowing_risk].
    induction cls as [|[pl x names ctx body] l IH]; simpl; [reflexivity | rewrite IH; reflexivity].
  Qed.
  Lemma inter_nonempty_false : forall a b, inter_nonempty a b = false -> forall x, In x a -> ~ In x b.
  Proof.
    intros a b H x Ha Hb. unfold inter_nonempty in H.
    assert (existsb (fun x0 => mem x0 b) a = true); [|congruence].
    apply existsb_exists. exists x. split; [exact Ha | apply mem_In; exact Hb].
  Qed.
End Risk.
