(* C15, the instance table of an accepted program (program level):
   - the declarations of the checked program are exactly the entries of the instance table ([decl_names_perm]), their
     names are pairwise different ([check_instance_names_distinct]), each is the instantiation of a declared template
     at well-formed type arguments ([check_instances_spec]);
   - closure: every type of a definition signature, let annotation, variable / call / constructor /
     destructor / `new` annotation and every type argument of a destructor call or case has a
     declaration ([check_output_closed]); the set of declared names is closed under type arguments
     ([check_instances_closed_under_targs]);
   - the full closure (fields of the instance declarations, clause binders, passed-down annotations)
     is false ([output_closed_refuted]; corpus/fun/c15_unused_field_type.sc). *)
From Coq Require Import List ZArith String Bool Permutation Lia.
From SCC Require Import Base.Sexp Lang.SynUtil Lang.FunSyn Model.Check Sem.FunTyping Sem.FunClosed
  Proof.FunInd Proof.FunEq Proof.CheckAnn Proof.TypingReject Proof.CheckBuild Proof.CheckMono Proof.CheckMonoSound
  Proof.CheckMonoProg Proof.PrintInj Proof.CheckPoly Proof.CheckInstBase Proof.CheckPolySound Proof.CheckPolyProg.
Import ListNotations.
Open Scope list_scope.

Lemma insert_sorted_perm : forall {X} (key : X -> string) x l, Permutation (insert_sorted key x l) (x :: l).
Proof.
  intros X key x l. induction l as [|y r IH]; simpl; [apply Permutation_refl|].
  destruct (name_leb (key y) (key x)); [|apply Permutation_refl].
  eapply perm_trans; [apply perm_skip; exact IH|apply perm_swap].
Qed.
Lemma sort_by_name_perm : forall {X} (key : X -> string) l, Permutation (sort_by_name key l) l.
Proof.
  intros X key l. unfold sort_by_name.
  assert (G : forall acc, Permutation (fold_left (fun acc x => insert_sorted key x acc) l acc) (acc ++ l)).
  { induction l as [|x r IH]; intros acc; simpl; [rewrite app_nil_r; apply Permutation_refl|].
    eapply perm_trans; [apply IH|]. eapply perm_trans; [apply Permutation_app_tail; apply insert_sorted_perm|].
    simpl. apply Permutation_middle. }
  exact (G []).
Qed.

Definition data_of (st : symtab) (e : fname * (fpol * list fty * list fname)) (d : fdata) : Prop :=
  let '(name, (pol, targs, xs)) := e in
  pol = FData /\ fdaname d = name /\ fdaparams d = []
  /\ Forall2 (fun x c => fctname c = x /\ aget (st_ctors st) (x ++ print_targs targs)%string = Some (fctargs c)) xs (fdactors d).
Definition codata_of (st : symtab) (e : fname * (fpol * list fty * list fname)) (d : fcodata) : Prop :=
  let '(name, (pol, targs, xs)) := e in
  pol = FCodata /\ fcoaname d = name /\ fcoparams d = []
  /\ Forall2 (fun x c => fdtname c = x /\ aget (st_dtors st) (x ++ print_targs targs)%string = Some (fdtargs c, fdtcont c)) xs (fcodtors d).

Lemma collect_ctors_spec : forall st sfx xs cs, collect_ctors st sfx xs = COk cs ->
  Forall2 (fun x c => fctname c = x /\ aget (st_ctors st) (x ++ sfx)%string = Some (fctargs c)) xs cs.
Proof.
  induction xs as [|x r IH]; intros cs H; simpl in H.
  - inversion H. constructor.
  - destruct (aget (st_ctors st) (x ++ sfx)%string) as [args|] eqn:E; [|discriminate].
    apply cbind_ok in H. destruct H as [r' [Hr H]]. inversion H; subst. constructor; [simpl; auto|auto].
Qed.
Lemma collect_dtors_spec : forall st sfx xs cs, collect_dtors st sfx xs = COk cs ->
  Forall2 (fun x c => fdtname c = x /\ aget (st_dtors st) (x ++ sfx)%string = Some (fdtargs c, fdtcont c)) xs cs.
Proof.
  induction xs as [|x r IH]; intros cs H; simpl in H.
  - inversion H. constructor.
  - destruct (aget (st_dtors st) (x ++ sfx)%string) as [[args cont]|] eqn:E; [|discriminate].
    apply cbind_ok in H. destruct H as [r' [Hr H]]. inversion H; subst. constructor; [simpl; auto|auto].
Qed.
Lemma collect_types_spec : forall st l das cos, collect_types st l = COk (das, cos) ->
  Permutation (map fdaname das ++ map fcoaname cos) (map fst l)
  /\ Forall (fun d => exists e, In e l /\ data_of st e d) das
  /\ Forall (fun d => exists e, In e l /\ codata_of st e d) cos.
Proof.
  intros st l. induction l as [|[name [[pol targs] xs]] r IH]; intros das cos H; simpl in H.
  - inversion H; subst. simpl. auto.
  - destruct pol.
    + apply cbind_ok in H. destruct H as [cs [Hc H]]. apply cbind_ok in H. destruct H as [[das' cos'] [Hr H]].
      inversion H; subst. destruct (IH _ _ Hr) as [Hp [Hd Hco]]. simpl. split; [apply perm_skip; exact Hp|]. split.
      * constructor.
        -- exists (name, (FData, targs, xs)). split; [left; reflexivity|]. simpl. splits; auto.
           apply collect_ctors_spec. exact Hc.
        -- eapply Forall_impl; [|exact Hd]. intros d [e [He Hde]]. exists e. split; [right; exact He|exact Hde].
      * eapply Forall_impl; [|exact Hco]. intros d [e [He Hde]]. exists e. split; [right; exact He|exact Hde].
    + apply cbind_ok in H. destruct H as [cs [Hc H]]. apply cbind_ok in H. destruct H as [[das' cos'] [Hr H]].
      inversion H; subst. destruct (IH _ _ Hr) as [Hp [Hd Hco]]. simpl. split.
      { eapply perm_trans; [apply Permutation_sym; apply Permutation_middle|]. apply perm_skip. exact Hp. }
      split.
      * eapply Forall_impl; [|exact Hd]. intros d [e [He Hde]]. exists e. split; [right; exact He|exact Hde].
      * constructor.
        -- exists (name, (FCodata, targs, xs)). split; [left; reflexivity|]. simpl. splits; auto.
           apply collect_dtors_spec. exact Hc.
        -- eapply Forall_impl; [|exact Hco]. intros d [e [He Hde]]. exists e. split; [right; exact He|exact Hde].
Qed.

Lemma decl_names_perm : forall st1 das cos defs,
  collect_types st1 (st_types st1) = COk (das, cos) ->
  Permutation (decl_names (mkfcprog (sort_by_name fdaname das) (sort_by_name fcoaname cos) defs)) (ikeys st1).
Proof.
  intros st1 das cos defs H. destruct (collect_types_spec _ _ _ _ H) as [Hp _].
  unfold decl_names. simpl. eapply perm_trans; [|exact Hp].
  apply Permutation_app; apply Permutation_map; apply sort_by_name_perm.
Qed.
Lemma perm_names_le : forall a b, Permutation a b -> names_le a b.
Proof. intros a b P k H. apply smem_In. apply smem_In in H. eapply Permutation_in; eassumption. Qed.

Theorem check_output_closed : forall eager p q,
  prog_names_ok p = true -> check_gen eager p = COk q -> defs_closed q = true.
Proof.
  intros eager p q Hm H. destruct (check_gen_run eager p q Hm H) as (st & st1 & das & cos & R).
  pose proof (pr_closed R) as C1. pose proof (pr_collect R) as Hcol. pose proof (pr_out R) as Hq.
  unfold defs_closed. rewrite forallb_forall in *. intros d Hd.
  eapply def_closed_mono; [|apply C1; exact Hd].
  apply perm_names_le. apply Permutation_sym. rewrite Hq. apply decl_names_perm. exact Hcol.
Qed.

Theorem check_instance_names_distinct : forall eager p q,
  prog_names_ok p = true -> check_gen eager p = COk q -> NoDup (decl_names q).
Proof.
  intros eager p q Hm H. destruct (check_gen_run eager p q Hm H) as (st & st1 & das & cos & R).
  pose proof (pr_inv R) as I1. pose proof (pr_collect R) as Hcol. pose proof (pr_out R) as Hq.
  rewrite Hq. eapply Permutation_NoDup; [apply Permutation_sym; apply decl_names_perm; exact Hcol|].
  apply (pi_nodup _ _ I1).
Qed.

(* the set of declared names is closed under type arguments: with `List[Pair[i64, Foo]]` also
   `Pair[i64, Foo]` and `Foo` are declared *)
Theorem check_instances_closed_under_targs : forall eager p q n a,
  prog_names_ok p = true -> check_gen eager p = COk q ->
  name_ok n = true -> tys_names_ok a = true ->
  In (print_ty (FDecl n a)) (decl_names q) -> forallb (ty_declared (decl_names q)) a = true.
Proof.
  intros eager p q n a Hm H Nn Na Hin.
  destruct (check_gen_run eager p q Hm H) as (st & st1 & das & cos & R).
  pose proof (pr_world R) as W. pose proof (pr_inv R) as I1. pose proof (pr_collect R) as Hcol. pose proof (pr_out R) as Hq.
  pose proof (decl_names_perm st1 das cos (fcpdefs q) Hcol) as Hp. rewrite <- Hq in Hp.
  assert (Hi : has_inst_p st1 (FDecl n a)).
  { apply declared_has_inst. simpl. apply smem_In. eapply Permutation_in; [exact Hp|exact Hin]. }
  eapply tys_declared_mono; [apply perm_names_le; apply Permutation_sym; exact Hp|].
  eapply has_inst_targs_declared; eassumption.
Qed.

Definition is_data_instance (ts : list tdecl) (d : fdata) : Prop :=
  exists td targs, In td ts /\ td_pol td = FData
    /\ List.length targs = List.length (td_params td) /\ forallb (wf_ty ts) targs = true
    /\ fdaname d = (td_name td ++ print_targs targs)%string /\ fdaparams d = []
    /\ fdactors d = map (fun s => mkfctor (xs_name s) (inst_ctx (td_params td) targs (xs_args s))) (td_xtors td).
Definition is_codata_instance (ts : list tdecl) (d : fcodata) : Prop :=
  exists td targs, In td ts /\ td_pol td = FCodata
    /\ List.length targs = List.length (td_params td) /\ forallb (wf_ty ts) targs = true
    /\ fcoaname d = (td_name td ++ print_targs targs)%string /\ fcoparams d = []
    /\ Forall2 (fun s c => fdtname c = xs_name s /\ fdtargs c = inst_ctx (td_params td) targs (xs_args s)
                           /\ exists r0, xs_ret s = Some r0 /\ fdtcont c = inst (td_params td) targs r0)
         (td_xtors td) (fcodtors d).

Section Instances.
  Variable ts : list tdecl.
  Variable fs : list fdef.
  Hypothesis W : poly_world ts fs.

  Lemma ctors_are_instances : forall st td targs l cs,
    pinv ts st -> In td ts -> td_pol td = FData -> targs_ok ts td targs -> (forall s, In s l -> In s (td_xtors td)) ->
    Forall2 (fun x c => fctname c = x /\ aget (st_ctors st) (x ++ print_targs targs)%string = Some (fctargs c)) (map xs_name l) cs ->
    cs = map (fun s => mkfctor (xs_name s) (inst_ctx (td_params td) targs (xs_args s))) l.
  Proof.
    intros st td targs l. induction l as [|s r IH]; intros cs I Htd Hp Hok Hl H; simpl in H; inversion H; subst; [reflexivity|].
    simpl. f_equal; [|apply IH; auto; intros; apply Hl; right; assumption].
    destruct H2 as [Hn Hg]. destruct y as [cn ca]. simpl in *. subst cn. f_equal.
    assert (Hs : In s (td_xtors td)) by (apply Hl; left; reflexivity).
    destruct (ctor_instance_sound ts fs W _ _ _ _ I (PW_xnames _ _ W td s Htd Hs) (targs_ok_names ts fs W _ _ Hok) Hg)
      as [td' [s' [Htd' [Hp' [Hs' [Hn' [_ ->]]]]]]].
    destruct (xtor_owner_unique ts fs W td td' s s' Htd Htd' ltac:(congruence) Hs Hs' ltac:(congruence)) as [<- <-].
    reflexivity.
  Qed.
  Lemma dtors_are_instances : forall st td targs l cs,
    pinv ts st -> In td ts -> td_pol td = FCodata -> targs_ok ts td targs -> (forall s, In s l -> In s (td_xtors td)) ->
    Forall2 (fun x c => fdtname c = x /\ aget (st_dtors st) (x ++ print_targs targs)%string = Some (fdtargs c, fdtcont c)) (map xs_name l) cs ->
    Forall2 (fun s c => fdtname c = xs_name s /\ fdtargs c = inst_ctx (td_params td) targs (xs_args s)
                        /\ exists r0, xs_ret s = Some r0 /\ fdtcont c = inst (td_params td) targs r0) l cs.
  Proof.
    intros st td targs l. induction l as [|s r IH]; intros cs I Htd Hp Hok Hl H; simpl in H; inversion H; subst; constructor.
    - destruct H2 as [Hn Hg].
      assert (Hs : In s (td_xtors td)) by (apply Hl; left; reflexivity).
      destruct (dtor_instance_sound ts fs W _ _ _ _ _ I (PW_xnames _ _ W td s Htd Hs) (targs_ok_names ts fs W _ _ Hok) Hg)
        as [td' [s' [r0 [Htd' [Hp' [Hs' [Hn' [_ [Hr [Ha Hc]]]]]]]]]].
      destruct (xtor_owner_unique ts fs W td td' s s' Htd Htd' ltac:(congruence) Hs Hs' ltac:(congruence)) as [<- <-].
      splits; auto. eauto.
    - apply IH; auto. intros; apply Hl; right; assumption.
  Qed.
End Instances.

Theorem check_instances_spec : forall eager p q,
  prog_names_ok p = true -> check_gen eager p = COk q ->
  Forall (is_data_instance (tdecls (fpdecls p))) (fcpdata q) /\ Forall (is_codata_instance (tdecls (fpdecls p))) (fcpcodata q).
Proof.
  intros eager p q Hm H. destruct (check_gen_run eager p q Hm H) as (st & st1 & das & cos & R).
  pose proof (pr_world R) as W. pose proof (pr_inv R) as I1. pose proof (pr_collect R) as Hcol.
  pose proof (pr_out R) as Hq.
  destruct (collect_types_spec _ _ _ _ Hcol) as [_ [Hd Hco]].
  set (ts := tdecls (fpdecls p)) in *. set (fs := fdefs (fpdecls p)) in *.
  rewrite Hq. simpl. split.
  - eapply Permutation_Forall; [apply Permutation_sym; apply sort_by_name_perm|].
    eapply Forall_impl; [|exact Hd]. intros d [[name [[pol targs] xs]] [He [Hpol [Hname [Hps Hcs]]]]].
    assert (Hg : aget (st_types st1) name = Some (pol, targs, xs)) by (apply In_aget; [apply (pi_nodup _ _ I1)|exact He]).
    destruct (pi_types _ _ I1 _ _ _ _ Hg) as [td [Htd [Ek [Hp [Hxs [Hlen Hwf]]]]]].
    exists td, targs. subst pol. splits; auto; [congruence|].
    subst xs. eapply (ctors_are_instances ts fs W); eauto. split; assumption.
  - eapply Permutation_Forall; [apply Permutation_sym; apply sort_by_name_perm|].
    eapply Forall_impl; [|exact Hco]. intros d [[name [[pol targs] xs]] [He [Hpol [Hname [Hps Hcs]]]]].
    assert (Hg : aget (st_types st1) name = Some (pol, targs, xs)) by (apply In_aget; [apply (pi_nodup _ _ I1)|exact He]).
    destruct (pi_types _ _ I1 _ _ _ _ Hg) as [td [Htd [Ek [Hp [Hxs [Hlen Hwf]]]]]].
    exists td, targs. subst pol. splits; auto; [congruence|].
    subst xs. eapply (dtors_are_instances ts fs W); eauto. split; assumption.
Qed.

(* the full closure is false: corpus/fun/c15_unused_field_type.sc:
     data Bar { B }   data Foo { MkFoo(x: Bar), Nope }
     def main(): i64 { Nope.case { MkFoo(x) => 0, Nope => 1 } } *)
Local Open Scope string_scope.
Definition p_unused_field_type : fprog :=
  mkfprog [FDData (mkfdata "Bar" [] [mkfctor "B" []]);
           FDData (mkfdata "Foo" [] [mkfctor "MkFoo" [mkfb "x" FPrd (FDecl "Bar" [])]; mkfctor "Nope" []]);
           FDDef (mkfdef "main" [] FI64
                    (FCase (FCtor "Nope" [] None) []
                       [FClause FData "MkFoo" ["x"] [] (FLit 0); FClause FData "Nope" [] [] (FLit 1)] None))].
Lemma unused_field_type_witness :
  prog_names_ok p_unused_field_type = true /\ has_type_b p_unused_field_type = true
  /\ exists q, check p_unused_field_type = COk q /\ decl_names q = ["Foo"] /\ defs_closed q = true /\ fcprog_closed q = false.
Proof.
  split; [vm_compute; reflexivity|]. split; [vm_compute; reflexivity|].
  eexists. split; [vm_compute; reflexivity|]. split; [reflexivity|]. split; vm_compute; reflexivity.
Qed.
Lemma output_closed_refuted : ~ (forall p q, has_type p -> check p = COk q -> fcprog_closed q = true).
Proof.
  intro H. destruct unused_field_type_witness as [_ [Ht [q [Hq [_ [_ Hc]]]]]].
  rewrite (H _ _ Ht Hq) in Hc. discriminate.
Qed.
