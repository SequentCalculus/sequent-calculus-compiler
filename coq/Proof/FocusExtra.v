(* C03, the remaining theorems: totality of focus on well-formed programs whatever their
   identifiers, the shadowing lemmas of subst_sim, and the refutation witnesses.  The file also holds the
   definitions those statements use: free variables [fv_*] with [remove_id], [remove_ids], and [captured_sum]. *)
From Coq Require Import List ZArith NArith String Bool Lia.
From SCC Require Import Base.Sexp Lang.CoreSyn Model.Backend Model.Uniquify Model.Focus Model.FocusCheck
     Proof.CoreInd Proof.SubstProof Proof.CheckLemmas Proof.UniquifyProof Proof.FocusKont Proof.UqSubst Proof.FocusMono Proof.FocusLemmas Proof.FocusProof.
Import ListNotations.
Open Scope list_scope.

Definition is_xvar (t : cterm) : bool := match t with CXVar _ _ _ => true | _ => false end.
Definition vrng (s : csubst) : Prop := Forall (fun p => is_xvar (snd p) = true) s.
Lemma vrng_filter : forall f s, vrng s -> vrng (filter f s).
Proof. unfold vrng; intros f s H. rewrite Forall_forall in *. intros p Hp. apply filter_In in Hp. apply H; tauto. Qed.

Lemma vrng_remove : forall v s, vrng s -> vrng (subst_remove v s).
Proof. intros; apply vrng_filter; auto. Qed.
Lemma vrng_remove_ctx : forall c s, vrng s -> vrng (subst_remove_ctx c s).
Proof. intros; apply vrng_filter; auto. Qed.

Definition tspec_term (c : cchi) (t t' : cterm) : Prop :=
  depth_term t' = depth_term t /\ wf_term c t' = true /\ is_xtor t' = is_xtor t /\ is_op t' = is_op t.
Definition tspec_arg (a a' : carg) : Prop := depth_arg a' = depth_arg a /\ wf_arg a' = true.
Definition tspec_clause (a a' : cclause) : Prop := depth_clause a' = depth_clause a /\ wf_clause a' = true.
Definition tspec_stmt (a a' : cstmt) : Prop := depth_stmt a' = depth_stmt a /\ wf_stmt a' = true.

Lemma subst_total_all :
  (forall t c ps cs, vrng ps -> vrng cs -> wf_term c t = true ->
     exists t', subst_term c t ps cs = Ok t' /\ tspec_term c t t') /\
  (forall a ps cs, vrng ps -> vrng cs -> wf_arg a = true ->
     exists a', subst_arg a ps cs = Ok a' /\ tspec_arg a a') /\
  (forall cl ps cs, vrng ps -> vrng cs -> wf_clause cl = true ->
     exists cl', subst_clause cl ps cs = Ok cl' /\ tspec_clause cl cl') /\
  (forall s ps cs, vrng ps -> vrng cs -> wf_stmt s = true ->
     exists s', subst_stmt s ps cs = Ok s' /\ tspec_stmt s s').
Proof.
  apply core_mutind.
  - intros c0 v ty c ps cs Rp Rc W. simpl.
    assert (Hs : forall s, vrng s ->
               exists t', match subst_find v s with None => Ok (CXVar c0 v ty) | Some p => Ok p end = Ok t'
                          /\ tspec_term c (CXVar c0 v ty) t').
    { intros s Rs. destruct (subst_find v s) as [p|] eqn:F.
      - destruct (subst_find_in _ _ _ F) as (k & Hk). unfold vrng in Rs. rewrite Forall_forall in Rs.
        specialize (Rs _ Hk). simpl in Rs. destruct p; try discriminate.
        eexists; split; [reflexivity|]. unfold tspec_term; simpl; auto.
      - eexists; split; [reflexivity|]. unfold tspec_term; simpl; auto. }
    destruct c; auto.
  - intros n c ps cs Rp Rc W. simpl in *. destruct c; try discriminate.
    eexists; split; [reflexivity|]. unfold tspec_term; simpl; auto.
  - intros a o b IHa IHb c ps cs Rp Rc W. simpl in *. destruct c; try discriminate. bsplit.
    destruct (IHa CPrd ps cs) as (a' & Ea & (A1 & A2 & _)); auto.
    destruct (IHb CPrd ps cs) as (b' & Eb & (B1 & B2 & _)); auto.
    rewrite Ea; simpl. rewrite Eb; simpl. eexists; split; [reflexivity|].
    unfold tspec_term; simpl. rewrite A1, A2, B1, B2. auto.
  - intros c0 v s ty IHs c ps cs Rp Rc W. simpl in *.
    destruct (IHs (subst_remove v ps) (subst_remove v cs)) as (s' & Es & (S1 & S2)); auto using vrng_remove, vrng_remove_ctx.
    rewrite Es; simpl. eexists; split; [reflexivity|]. unfold tspec_term; simpl. rewrite S1, S2. auto.
  - intros c0 x args ty IH c ps cs Rp Rc W. simpl in *. rewrite forallb_forall in W.
    destruct (mapr_spec _ _ (fun a => subst_arg a ps cs) tspec_arg args) as (args' & E & F2).
    { rewrite Forall_forall in *. intros a Ha. apply IH; auto. }
    rewrite E; simpl. eexists; split; [reflexivity|]. unfold tspec_term; simpl. rewrite !depth_args_eq.
    repeat split; auto.
    + f_equal. apply forall2_depth_args. eapply forall2_weaken; eauto. intros ? ? H; apply H.
    + eapply forall2_forallb; [exact F2|]. intros ? ? H; apply H.
  - intros c0 cls ty IH c ps cs Rp Rc W. simpl in *. rewrite forallb_forall in W.
    destruct (mapr_spec _ _ (fun a => subst_clause a ps cs) tspec_clause cls) as (cls' & E & F2).
    { rewrite Forall_forall in *. intros a Ha. apply IH; auto. }
    rewrite E; simpl. eexists; split; [reflexivity|]. unfold tspec_term; simpl. rewrite !depth_clauses_eq.
    repeat split; auto.
    + f_equal. apply forall2_depth_clauses. eapply forall2_weaken; eauto. intros ? ? H; apply H.
    + eapply forall2_forallb; [exact F2|]. intros ? ? H; apply H.
  - intros p IHp ps cs Rp Rc W. simpl in *.
    destruct (IHp CPrd ps cs) as (p' & E & (S1 & S2 & _)); auto. rewrite E; simpl.
    eexists; split; [reflexivity|]. unfold tspec_arg; simpl; auto.
  - intros p IHp ps cs Rp Rc W. simpl in *.
    destruct (IHp CCns ps cs) as (p' & E & (S1 & S2 & _)); auto. rewrite E; simpl.
    eexists; split; [reflexivity|]. unfold tspec_arg; simpl; auto.
  - intros c0 x ctx body IHb ps cs Rp Rc W. simpl in *.
    destruct (IHb (subst_remove_ctx ctx ps) (subst_remove_ctx ctx cs)) as (s' & Es & (S1 & S2)); auto using vrng_remove, vrng_remove_ctx.
    rewrite Es; simpl. eexists; split; [reflexivity|]. unfold tspec_clause; simpl. rewrite S1, S2. auto.
  - intros p ty k IHp IHk ps cs Rp Rc W. simpl in *. bsplit.
    destruct (IHp CPrd ps cs) as (p' & Ep & (A1 & A2 & A3 & A4)); auto.
    destruct (IHk CCns ps cs) as (k' & Ek & (B1 & B2 & B3 & B4)); auto.
    rewrite Ep; simpl. rewrite Ek; simpl. eexists; split; [reflexivity|].
    unfold tspec_stmt; simpl. rewrite A1, A2, A3, A4, B1, B2, B3. split; auto. bsplit; auto.
  - intros so a bo t e IHa IHb IHt IHe ps cs Rp Rc W. simpl in *. bsplit.
    destruct (IHa CPrd ps cs) as (a' & Ea & (A1 & A2 & _)); auto.
    destruct (IHt ps cs) as (t' & Et & (T1 & T2)); auto.
    destruct (IHe ps cs) as (e' & Ee & (E1 & E2)); auto.
    rewrite Ea; simpl. destruct bo as [b0|]; simpl in *.
    + destruct (IHb CPrd ps cs) as (b' & Eb & (B1 & B2 & _)); auto. rewrite Eb; simpl.
      rewrite Et; simpl. rewrite Ee; simpl. eexists; split; [reflexivity|].
      unfold tspec_stmt; simpl. rewrite A1, A2, B1, B2, T1, T2, E1, E2. auto.
    + rewrite Et; simpl. rewrite Ee; simpl. eexists; split; [reflexivity|].
      unfold tspec_stmt; simpl. rewrite A1, A2, T1, T2, E1, E2. auto.
  - intros nl a next IHa IHn ps cs Rp Rc W. simpl in *. bsplit.
    destruct (IHa CPrd ps cs) as (a' & Ea & (A1 & A2 & _)); auto.
    destruct (IHn ps cs) as (n' & En & (T1 & T2)); auto.
    rewrite Ea; simpl. rewrite En; simpl. eexists; split; [reflexivity|].
    unfold tspec_stmt; simpl. rewrite A1, A2, T1, T2. auto.
  - intros f args ty IH ps cs Rp Rc W. simpl in *. rewrite forallb_forall in W.
    destruct (mapr_spec _ _ (fun a => subst_arg a ps cs) tspec_arg args) as (args' & E & F2).
    { rewrite Forall_forall in *. intros a Ha. apply IH; auto. }
    rewrite E; simpl. eexists; split; [reflexivity|]. unfold tspec_stmt; simpl. rewrite !depth_args_eq.
    split.
    + f_equal. apply forall2_depth_args. eapply forall2_weaken; eauto. intros ? ? H; apply H.
    + eapply forall2_forallb; [exact F2|]. intros ? ? H; apply H.
  - intros a ty IHa ps cs Rp Rc W. simpl in *.
    destruct (IHa CPrd ps cs) as (a' & Ea & (A1 & A2 & _)); auto.
    rewrite Ea; simpl. eexists; split; [reflexivity|]. unfold tspec_stmt; simpl. rewrite A1, A2. auto.
Qed.
Definition subst_total_stmt := proj2 (proj2 (proj2 subst_total_all)).

(* uq_context produces variable ranges *)
Lemma uq_context_vrng : forall bs m acc vs cs,
  vrng vs -> vrng cs ->
  let '(_, v, k, _) := uq_context bs m acc vs cs in vrng v /\ vrng k.
Proof.
  induction bs as [|b r IH]; intros m acc vs cs Rv Rc; simpl.
  - rewrite !frev_rev. split; unfold vrng in *; apply Forall_rev; auto.
  - destruct (N.eqb (cid_id (cbvar b)) 0).
    + destruct (cbchi b); apply IH; auto; constructor; auto.
    + apply IH; auto.
Qed.

(* the body of a clause or definition, after the substitution that renames its parameters *)
Lemma uq_ctx_body_total : forall ctx m body, wf_stmt body = true ->
  let '(_, vs, cs, _) := uq_context ctx m [] [] [] in
  exists b1, (if is_nil vs && is_nil cs then Ok body else subst_stmt body vs cs) = Ok b1 /\ tspec_stmt body b1.
Proof.
  intros ctx m body W.
  pose proof (uq_context_vrng ctx m [] [] [] ltac:(constructor) ltac:(constructor)) as V.
  destruct (uq_context ctx m [] [] []) as [[[ctx' vs] cs] m1]. destruct V as [Vv Vc].
  destruct (is_nil vs && is_nil cs).
  - exists body; split; auto. unfold tspec_stmt; auto.
  - apply subst_total_stmt; auto.
Qed.

(* uniquify: totality at sufficient fuel *)
Definition TQt (f : nat) : Prop := forall t m c, (depth_term t <= f)%nat -> wf_term c t = true ->
  exists t' m', uq_term f t m = Ok (t', m') /\ wf_term c t' = true /\ is_xtor t' = is_xtor t /\ is_op t' = is_op t.
Definition TQc (f : nat) : Prop := forall cl m, (depth_clause cl <= f)%nat -> wf_clause cl = true ->
  exists cl' m', uq_clause f cl m = Ok (cl', m') /\ wf_clause cl' = true.
Definition TQs (f : nat) : Prop := forall s m, (depth_stmt s <= f)%nat -> wf_stmt s = true ->
  exists s' m', uq_stmt f s m = Ok (s', m') /\ wf_stmt s' = true.

Lemma maprs_total : forall (X : Type) (g : X -> N -> res (X * N)) (dep : X -> nat) (wf : X -> bool) (f : nat),
  (forall x m, (dep x <= f)%nat -> wf x = true -> exists x' m', g x m = Ok (x', m') /\ wf x' = true) ->
  forall l m, (forall x, In x l -> (dep x <= f)%nat) -> forallb wf l = true ->
  exists l' m', maprs g l m = Ok (l', m') /\ forallb wf l' = true.
Proof.
  intros X g dep wf f Hg. induction l as [|x l IH]; intros m D W; simpl in *.
  - eexists _, _; split; [reflexivity|auto].
  - bsplit. destruct (Hg x m) as (x' & m1 & E1 & W1); auto.
    destruct (IH m1) as (l' & m2 & E2 & W2); auto.
    rewrite E1; simpl. rewrite E2; simpl. eexists _, _; split; [reflexivity|]. simpl. bsplit; auto.
Qed.

Lemma uq_total : forall f, TQt f /\ TQc f /\ TQs f.
Proof.
  induction f as [|f (IHt & IHc & IHs)].
  { repeat split; intros x; intros.
    - pose proof (depth_term_pos x); lia.
    - pose proof (depth_clause_pos x); lia.
    - pose proof (depth_stmt_pos x); lia. }
  assert (IHa : forall a m, (depth_arg a <= f)%nat -> wf_arg a = true ->
                 exists a' m', uq_arg_with (uq_term f) a m = Ok (a', m') /\ wf_arg a' = true).
  { intros [p|p] m D W; simpl in *.
    - destruct (IHt p m CPrd) as (p' & m' & E & W' & _); auto. rewrite E; simpl. eexists _, _; split; [reflexivity|auto].
    - destruct (IHt p m CCns) as (p' & m' & E & W' & _); auto. rewrite E; simpl. eexists _, _; split; [reflexivity|auto]. }
  assert (Hargs := maprs_total carg (uq_arg_with (uq_term f)) depth_arg wf_arg f IHa).
  assert (Hcls := maprs_total cclause (uq_clause f) depth_clause wf_clause f IHc).
  split; [|split].
  - intros t m c D W. destruct t as [c0 v ty|n|a o b|c0 v s ty|c0 x args ty|c0 cls ty]; simpl in *.
    + eexists _, _; split; [reflexivity|auto].
    + eexists _, _; split; [reflexivity|auto].
    + bsplit. destruct c; try discriminate.
      destruct (IHt a m CPrd) as (a' & m1 & E1 & W1 & _); auto; try lia.
      destruct (IHt b m1 CPrd) as (b' & m2 & E2 & W2 & _); auto; try lia.
      rewrite E1; simpl. rewrite E2; simpl. eexists _, _; split; [reflexivity|]. simpl. rewrite W1, W2. auto.
    + destruct (N.eqb (cid_id v) 0).
      * assert (SB : exists s1, match c0 with
                                | CPrd => subst_covar_stmt s v (CXVar CCns (cid_name v, (m + 1)%N) ty)
                                | CCns => subst_var_stmt s v (CXVar CPrd (cid_name v, (m + 1)%N) ty)
                                end = Ok s1 /\ tspec_stmt s s1).
        { destruct c0; unfold subst_covar_stmt, subst_var_stmt; apply subst_total_stmt; auto;
            try constructor; auto; constructor. }
        destruct SB as (s1 & Es1 & (Sd & Sw)). rewrite Es1; simpl.
        destruct (IHs s1 (m + 1)%N) as (s2 & m2 & E2 & W2); auto; try lia.
        rewrite E2; simpl. eexists _, _; split; [reflexivity|auto].
      * destruct (IHs s m) as (s2 & m2 & E2 & W2); auto; try lia.
        rewrite E2; simpl. eexists _, _; split; [reflexivity|auto].
    + rewrite depth_args_eq in D.
      destruct (Hargs args m) as (args' & m1 & E1 & W1); auto.
      { intros a Ha. pose proof (in_depth_args a args Ha). lia. }
      rewrite E1; simpl. eexists _, _; split; [reflexivity|auto].
    + rewrite depth_clauses_eq in D.
      destruct (Hcls cls m) as (cls' & m1 & E1 & W1); auto.
      { intros a Ha. pose proof (in_depth_clauses a cls Ha). lia. }
      rewrite E1; simpl. eexists _, _; split; [reflexivity|auto].
  - intros cl m D W. destruct cl as [c0 x ctx body]; simpl in *.
    pose proof (uq_ctx_body_total ctx m body W) as SB.
    destruct (uq_context ctx m [] [] []) as [[[ctx' vs] cs] m1].
    destruct SB as (b1 & Eb1 & (Sd & Sw)). rewrite Eb1; simpl.
    destruct (IHs b1 m1) as (b2 & m2 & E2 & W2); auto; try lia.
    rewrite E2; simpl. eexists _, _; split; [reflexivity|auto].
  - intros s m D W. destruct s as [p ty k|so a bo t e|nl a next|g args ty|a ty]; simpl in *.
    + bsplit.
      destruct (IHt p m CPrd) as (p' & m1 & E1 & W1 & X1 & O1); auto; try lia.
      destruct (IHt k m1 CCns) as (k' & m2 & E2 & W2 & X2 & O2); auto; try lia.
      rewrite E1; simpl. rewrite E2; simpl. eexists _, _; split; [reflexivity|]. simpl.
      rewrite X1, X2, O1. bsplit; auto.
    + bsplit.
      destruct (IHt a m CPrd) as (a' & m1 & E1 & W1 & _); auto; try lia. rewrite E1; simpl.
      assert (HB : exists b' m2,
                 match bo with
                 | Some b0 => dor (b1, m2) <- uq_term f b0 m1; Ok (Some b1, m2)
                 | None => Ok (None, m1)
                 end = Ok (b', m2) /\ match b' with Some b1 => wf_term CPrd b1 | None => true end = true).
      { destruct bo as [b0|].
        - destruct (IHt b0 m1 CPrd) as (b' & m2 & E2 & W2 & _); auto; try lia.
          rewrite E2; simpl. exists (Some b'), m2; auto.
        - exists None, m1; auto. }
      destruct HB as (b' & m2 & E2 & W2). rewrite E2; simpl.
      destruct (IHs t m2) as (t' & m3 & E3 & W3); auto; try lia. rewrite E3; simpl.
      destruct (IHs e m3) as (e' & m4 & E4 & W4); auto; try lia. rewrite E4; simpl.
      eexists _, _; split; [reflexivity|]. simpl. bsplit; auto.
    + bsplit.
      destruct (IHt a m CPrd) as (a' & m1 & E1 & W1 & _); auto; try lia.
      destruct (IHs next m1) as (n' & m2 & E2 & W2); auto; try lia.
      rewrite E1; simpl. rewrite E2; simpl. eexists _, _; split; [reflexivity|]. simpl. bsplit; auto.
    + rewrite depth_args_eq in D.
      destruct (Hargs args m) as (args' & m1 & E1 & W1); auto.
      { intros a Ha. pose proof (in_depth_args a args Ha). lia. }
      rewrite E1; simpl. eexists _, _; split; [reflexivity|auto].
    + destruct (IHt a m CPrd) as (a' & m1 & E1 & W1 & _); auto; try lia.
      rewrite E1; simpl. eexists _, _; split; [reflexivity|auto].
Qed.

Lemma uq_def_total : forall d m, wf_stmt (cdbody d) = true ->
  exists d' m', uq_def d m = Ok (d', m') /\ wf_stmt (cdbody d') = true.
Proof.
  intros [name ctx body] m W. unfold uq_def; simpl in *.
  pose proof (uq_ctx_body_total ctx m body W) as SB.
  destruct (uq_context ctx m [] [] []) as [[[ctx' vs] cs] m1].
  destruct SB as (b1 & Eb1 & (Sd & Sw)). rewrite Eb1; simpl.
  destruct (proj2 (proj2 (uq_total (uq_fuel b1))) b1 m1) as (b2 & m2 & E2 & W2); auto.
  rewrite E2; simpl. eexists _, _; split; [reflexivity|auto].
Qed.

(* focus: totality, the instance "is Ok" of Proof/FocusMono.v's [focus_flow_all] *)
Lemma focus_total_stmt : forall s m, wf_stmt s = true -> exists r, focus_stmt s m = Ok r.
Proof.
  intros s m W.
  refine (proj2 (proj2 (proj2 (focus_flow_all (fun X _ r => exists y, r = Ok y) (fun b => b = true) eq_refl _ _ _ _ _))) s m W).
  - intros a b H. apply andb_true_iff. exact H.
  - intros X m0 e H. discriminate.
  - intros X m0 x. eexists; reflexivity.
  - intros X m0 r H. exact H.
  - intros X Y m0 r f [[x m1] ->] Hf. exact (Hf x m1).
Qed.

Lemma maprs_total' : forall (X Y : Type) (g : X -> N -> res (Y * N)) (P : X -> Prop) (Q : Y -> Prop),
  (forall x m, P x -> exists y m', g x m = Ok (y, m') /\ Q y) ->
  forall l m, Forall P l -> exists l' m', maprs g l m = Ok (l', m') /\ Forall Q l'.
Proof.
  intros X Y g P Q Hg. induction l as [|x l IH]; intros m F; simpl.
  - eexists _, _; split; [reflexivity|constructor].
  - inversion F; subst. destruct (Hg x m) as (y & m1 & E1 & Q1); auto.
    destruct (IH m1) as (l' & m2 & E2 & Q2); auto.
    rewrite E1; simpl. rewrite E2; simpl. eexists _, _; split; [reflexivity|constructor; auto].
Qed.

Theorem focus_total_thm : forall p, focus_wf p = true -> exists q, focus_prog p = Ok q.
Proof.
  intros p W. unfold focus_prog, uniquify_prog, focus_wf in *.
  destruct (maprs_total' cdef cdef uq_def (fun d => wf_stmt (cdbody d) = true) (fun d => wf_stmt (cdbody d) = true))
    with (l := cpdefs p) (m := cpmax p) as (ds' & M & E & F).
  { intros d m Hd. apply uq_def_total; auto. }
  { apply Forall_forall. rewrite forallb_forall in W. auto. }
  rewrite E; simpl.
  destruct (maprs_total' cdef fsdef focus_def (fun d => wf_stmt (cdbody d) = true) (fun _ => True))
    with (l := ds') (m := M) as (qs & M' & E2 & _); auto.
  { intros d m Hd. unfold focus_def. destruct (focus_total_stmt (cdbody d) m Hd) as ([b m'] & Eb).
    rewrite Eb; simpl. eexists _, _; split; [reflexivity|auto]. }
  rewrite E2; simpl. eexists; reflexivity.
Qed.

Lemma subst_shadow_mu : forall c c' v s ty ps cs,
  subst_term c (CMu c' v s ty) ps cs =
  rbind (subst_stmt s (subst_remove v ps) (subst_remove v cs)) (fun s' => Ok (CMu c' v s' ty)).
Proof. reflexivity. Qed.
Lemma subst_shadow_clause : forall c' x ctx body ps cs,
  subst_clause (CClause c' x ctx body) ps cs =
  rbind (subst_stmt body (subst_remove_ctx ctx ps) (subst_remove_ctx ctx cs))
        (fun b' => Ok (CClause c' x ctx b')).
Proof. reflexivity. Qed.

Lemma subst_find_remove_same : forall v s, subst_find v (subst_remove v s) = None.
Proof.
  induction s as [|[k t] s IH]; simpl; auto.
  destruct (cident_eqb k v) eqn:E; simpl; auto. rewrite E. auto.
Qed.
Lemma subst_shadowed_key : forall v t ps cs,
  subst_find v (subst_remove v ((v, t) :: ps)) = subst_find v (subst_remove v ps) /\
  subst_find v (subst_remove v cs) = None.
Proof.
  intros. split; [|apply subst_find_remove_same].
  unfold subst_remove; simpl. rewrite cident_eqb_refl. reflexivity.
Qed.

(* free variables: occurrences not below a binder with the same (name, id) *)
Definition remove_id (x : cident) (l : list cident) : list cident := filter (fun y => negb (cident_eqb y x)) l.
Definition remove_ids (xs l : list cident) : list cident := filter (fun y => negb (existsb (cident_eqb y) xs)) l.
Fixpoint fv_term (t : cterm) : list cident :=
  match t with
  | CXVar _ v _ => [v]
  | CLit _ => []
  | COp a _ b => fv_term a ++ fv_term b
  | CMu _ v s _ => remove_id v (fv_stmt s)
  | CXtor _ _ args _ => flat_map fv_arg args
  | CXCase _ cls _ => flat_map fv_clause cls
  end
with fv_arg (a : carg) : list cident :=
  match a with CProducer p => fv_term p | CConsumer k => fv_term k end
with fv_clause (c : cclause) : list cident :=
  match c with CClause _ _ ctx body => remove_ids (cvars ctx) (fv_stmt body) end
with fv_stmt (s : cstmt) : list cident :=
  match s with
  | CCut p _ k => fv_term p ++ fv_term k
  | CIfC _ a b t e => fv_term a ++ match b with Some b' => fv_term b' | None => [] end ++ fv_stmt t ++ fv_stmt e
  | CPrint _ a next => fv_term a ++ fv_stmt next
  | CCall _ args _ => flat_map fv_arg args
  | CExit a _ => fv_term a
  end.

Definition keys_not_free (ps cs : csubst) (fv : list cident) : Prop :=
  forall k, In k (map fst ps ++ map fst cs) -> ~ In k fv.

Lemma keys_remove : forall v ps cs fv,
  keys_not_free ps cs (remove_id v fv) -> keys_not_free (subst_remove v ps) (subst_remove v cs) fv.
Proof.
  unfold keys_not_free; intros v ps cs fv H k Hk Hf.
  assert (K : In k (map fst ps ++ map fst cs) /\ cident_eqb k v = false).
  { apply in_app_or in Hk. destruct Hk as [Hk|Hk]; apply in_map_iff in Hk; destruct Hk as ([k' t] & <- & Hp);
      apply filter_In in Hp; destruct Hp as [Hp Hn]; simpl in *; apply negb_true_iff in Hn; split; auto;
      apply in_or_app; [left|right]; apply in_map_iff; exists (k', t); auto. }
  destruct K as [K1 K2]. apply (H k K1). unfold remove_id. apply filter_In. split; auto. rewrite K2; auto.
Qed.
Lemma keys_remove_ctx : forall ctx ps cs fv,
  keys_not_free ps cs (remove_ids (cvars ctx) fv) -> keys_not_free (subst_remove_ctx ctx ps) (subst_remove_ctx ctx cs) fv.
Proof.
  unfold keys_not_free; intros ctx ps cs fv H k Hk Hf.
  assert (K : In k (map fst ps ++ map fst cs) /\ existsb (cident_eqb k) (cvars ctx) = false).
  { apply in_app_or in Hk. destruct Hk as [Hk|Hk]; apply in_map_iff in Hk; destruct Hk as ([k' t] & <- & Hp);
      apply filter_In in Hp; destruct Hp as [Hp Hn]; simpl in *; apply negb_true_iff in Hn; split; auto;
      apply in_or_app; [left|right]; apply in_map_iff; exists (k', t); auto. }
  destruct K as [K1 K2]. apply (H k K1). unfold remove_ids. apply filter_In. split; auto. rewrite K2; auto.
Qed.
Lemma keys_sub : forall ps cs fv fv', keys_not_free ps cs fv -> incl fv' fv -> keys_not_free ps cs fv'.
Proof. unfold keys_not_free; intros ps cs fv fv' H I k Hk Hf. apply (H k Hk). auto. Qed.

Lemma mapr_id : forall (X : Type) (f : X -> res X) (l : list X),
  (forall x, In x l -> f x = Ok x) -> mapr f l = Ok l.
Proof.
  induction l as [|x l IH]; intros H; simpl; auto.
  rewrite (H x) by (left; auto). simpl. rewrite IH; auto. intros; apply H; right; auto.
Qed.

Lemma subst_not_free_all :
  (forall t c ps cs, wf_term c t = true -> keys_not_free ps cs (fv_term t) -> subst_term c t ps cs = Ok t) /\
  (forall a ps cs, wf_arg a = true -> keys_not_free ps cs (fv_arg a) -> subst_arg a ps cs = Ok a) /\
  (forall cl ps cs, wf_clause cl = true -> keys_not_free ps cs (fv_clause cl) -> subst_clause cl ps cs = Ok cl) /\
  (forall s ps cs, wf_stmt s = true -> keys_not_free ps cs (fv_stmt s) -> subst_stmt s ps cs = Ok s).
Proof.
  apply core_mutind; simpl.
  - intros c0 v ty c ps cs W K.
    assert (Np : ~ In v (map fst ps)) by (intro H; apply (K v); [apply in_or_app; auto | left; auto]).
    assert (Nc : ~ In v (map fst cs)) by (intro H; apply (K v); [apply in_or_app; auto | left; auto]).
    destruct c; [rewrite (proj2 (subst_find_none _ _) Np) | rewrite (proj2 (subst_find_none _ _) Nc)]; auto.
  - intros n c ps cs W K. destruct c; auto. discriminate.
  - intros a o b IHa IHb c ps cs W K. destruct c; try discriminate. simpl in W. bsplit.
    rewrite IHa, IHb; auto; eapply keys_sub; eauto; intros x Hx; apply in_or_app; auto.
  - intros c0 v s ty IHs c ps cs W K. rewrite IHs; auto. apply keys_remove; auto.
  - intros c0 x args ty IH c ps cs W K. rewrite forallb_forall in W. rewrite Forall_forall in IH.
    rewrite mapr_id; auto. intros a Ha. apply IH; auto. eapply keys_sub; eauto.
    intros y Hy. apply in_flat_map; eauto.
  - intros c0 cls ty IH c ps cs W K. rewrite forallb_forall in W. rewrite Forall_forall in IH.
    rewrite mapr_id; auto. intros a Ha. apply IH; auto. eapply keys_sub; eauto.
    intros y Hy. apply in_flat_map; eauto.
  - intros p IHp ps cs W K. rewrite IHp; auto.
  - intros p IHp ps cs W K. rewrite IHp; auto.
  - intros c0 x ctx body IHb ps cs W K. rewrite IHb; auto. apply keys_remove_ctx; auto.
  - intros p ty k IHp IHk ps cs W K. bsplit.
    rewrite IHp, IHk; auto; eapply keys_sub; eauto; intros x Hx; apply in_or_app; auto.
  - intros so a bo t e IHa IHb IHt IHe ps cs W K. bsplit.
    rewrite IHa; auto; [|eapply keys_sub; eauto; intros x Hx; apply in_or_app; auto]. simpl.
    destruct bo as [b0|]; simpl in *.
    + rewrite IHb; auto; [|eapply keys_sub; eauto; intros x Hx; apply in_or_app; right; apply in_or_app; auto]. simpl.
      rewrite IHt, IHe; auto; eapply keys_sub; eauto; intros x Hx; apply in_or_app; right; apply in_or_app; right; apply in_or_app; auto.
    + rewrite IHt, IHe; auto; eapply keys_sub; eauto; intros x Hx; apply in_or_app; right; apply in_or_app; auto.
  - intros nl a next IHa IHn ps cs W K. bsplit.
    rewrite IHa, IHn; auto; eapply keys_sub; eauto; intros x Hx; apply in_or_app; auto.
  - intros f args ty IH ps cs W K. rewrite forallb_forall in W. rewrite Forall_forall in IH.
    rewrite mapr_id; auto. intros a Ha. apply IH; auto. eapply keys_sub; eauto.
    intros y Hy. apply in_flat_map; eauto.
  - intros a ty IHa ps cs W K. rewrite IHa; auto.
Qed.
Lemma subst_not_free_stmt : forall s ps cs, wf_stmt s = true ->
  (forall k, In k (map fst ps ++ map fst cs) -> ~ In k (fv_stmt s)) -> subst_stmt s ps cs = Ok s.
Proof. intros; apply (proj2 (proj2 (proj2 subst_not_free_all))); auto. Qed.

Open Scope string_scope.
Definition wit_dup_nonzero : cprog :=
  mkcp [mkcd ("main", 0%N) []
          (CCut (CLit 1) CI64
             (CMu CCns ("x", 1%N)
                (CCut (CLit 2) CI64 (CMu CCns ("x", 1%N) (CExit (CXVar CPrd ("x", 1%N) CI64) CI64) CI64)) CI64))]
       [] [] 1%N.
Lemma focus_unique_ids_below_max_only_refuted :
  exists p, forallb (ids_le_def (cpmax p)) (cpdefs p) = true /\ focus_wf p = true /\
            exists q, focus_prog p = Ok q /\ unique_check p q = false.
Proof.
  exists wit_dup_nonzero. split; [vm_compute; reflexivity|]. split; [vm_compute; reflexivity|].
  eexists. split; vm_compute; reflexivity.
Qed.

Definition wit_id_above_max : cprog :=
  mkcp [mkcd ("main", 0%N) []
          (CCut (CLit 1) CI64
             (CMu CCns ("x", 1%N) (CExit (COp (CXVar CPrd ("x", 1%N) CI64) CSum (CLit 5)) CI64) CI64))]
       [] [] 0%N.
(* some operator node of the output adds a variable to itself *)
Fixpoint captured_sum_term (t : fsterm) : bool :=
  match t with
  | FsOp a _ b => cident_eqb a b
  | FsMu _ _ s _ => captured_sum_stmt s
  | _ => false
  end
with captured_sum_stmt (s : fsstmt) : bool :=
  match s with
  | FsCut p _ k => captured_sum_term p || captured_sum_term k
  | _ => false
  end.
Definition captured_sum (q : fsprog) : bool := existsb (fun d => captured_sum_stmt (fsdbody d)) (fspdefs q).
Lemma focus_captures_when_id_above_max_refuted :
  exists p q, focus_wf p = true /\ focus_prog p = Ok q /\ captured_sum q = true.
Proof.
  exists wit_id_above_max. eexists. split; [vm_compute; reflexivity|]. split; vm_compute; reflexivity.
Qed.
