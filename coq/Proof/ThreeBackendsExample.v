(* C08: non-vacuity of Proof/ThreeBackends.v.  The print-free chain example of Proof/RVKSimExample.v (`rk_lin`: named AxCut
   linearized by the model of the pass; a five-field record in two chained blocks, a closure capturing four integers, lists
   built and taken apart, objects shared and dropped, two definitions; FIVE integer arguments - the capacity of the x86-64
   entry) is inside every guard of `three_backends_simulate`; the three models of the code generators compile it; the theorem
   is applied; the three ISA models are evaluated on the emitted code. *)
From Coq Require Import List ZArith NArith String Bool Lia.
From SCC Require Import Base.Sexp Lang.AxSyn Sem.AxSem Model.Backend Model.Linearize Model.LinCheck Model.Capacity
     Proof.SimFrag Proof.X86HAnn Sem.LabelGuard Sem.WfGuard Sem.WfGuard64 Proof.RVKSimExample Proof.ThreeBackends.
From SCC Require Model.X86 Model.A64 Model.RV Sem.X86Sem Sem.A64Sem Sem.RVSem Proof.AxHeapTyping.
From SCC Require Proof.X86HSimTop Proof.A64HSimTop Proof.RVHSimTop Proof.RVKWfCor Proof.RVHSimExample.
Import ListNotations.
Local Open Scope list_scope.
Open Scope Z_scope.

Definition rk_xcode : list X86.xcode := match X86.x86_compile rk_lin 0 with Ok (cs, _, _) => cs | Err _ => [] end.
Definition rk_acode : list A64.acode := match A64.a64_compile rk_lin 0 with Ok (cs, _, _) => cs | Err _ => [] end.

Lemma rk3_guards :
  lin_check_prog rk_lin = true /\ ann_check_prog rk_lin = true /\ entry_int rk_lin = true /\ labels_guard rk_lin = true /\
  plain_names rk_lin = true /\ plain_types rk_lin = true /\ imm_guard rk_lin = true /\ size_guard rk_lin = true /\
  lits_i64 rk_lin = true /\ A64HSimTop.tags_i64 rk_lin = true /\ reach_guard_a64 rk_lin = true /\ imm_guard_rv rk_lin = true /\
  args_i64 rk_args = true.
Proof. vm_compute. repeat split; reflexivity. Qed.

(* a compilation result is determined by its code and its arity: one evaluation of the generator suffices *)
Lemma compiled_code {C} (r : res (list C * nat * N)) n :
  match r with Ok (_, m, _) => Nat.eqb m n | Err _ => false end = true ->
  exists lc', r = Ok (match r with Ok (cs, _, _) => cs | Err _ => [] end, n, lc').
Proof.
  destruct r as [[[cs m] lc']|]; [|discriminate]. intros E. apply Nat.eqb_eq in E. subst m. eauto.
Qed.

Lemma rk3_compiled :
  (exists lc', X86.x86_compile rk_lin 0 = Ok (rk_xcode, 5%nat, lc')) /\
  (exists lc', A64.a64_compile rk_lin 0 = Ok (rk_acode, 5%nat, lc')) /\
  (exists lc', RV.rv_compile rk_lin 0 = Ok (rk_code, 5%nat, lc')).
Proof.
  split; [|split].
  - unfold rk_xcode. apply compiled_code. vm_compute. reflexivity.
  - unfold rk_acode. apply compiled_code. vm_compute. reflexivity.
  - exact (proj1 (proj2 (proj2 (proj2 rk_hypotheses)))).
Qed.

Lemma rk3_heap_fits : RVHSimTop.heap_fits rk_lin rk_args.
Proof. destruct rk_hypotheses as (_ & _ & _ & _ & _ & _ & _ & H). now apply RVHSimExample.fits_run_sound with (fuel := 2000%nat). Qed.

(* the theorem applied *)
Lemma rk3_simulated :
  exists ox ix oa ia orv irv,
    fst (X86Sem.run_x86 ox ix rk_xcode rk_args) = run_linear 2000 rk_lin rk_args /\
    fst (A64Sem.run_a64 oa ia rk_acode rk_args) = run_linear 2000 rk_lin rk_args /\
    fst (RVSem.run_rv orv irv rk_code rk_args) = run_linear 2000 rk_lin rk_args.
Proof.
  pose proof rk3_guards as (G1 & G2 & G3 & G4 & G5 & G6 & G7 & G8 & G9 & G10 & G11 & G12 & G13).
  pose proof rk3_compiled as ((lx & CX) & (la & CA) & (lr & CR)).
  refine (three_backends_simulate rk_lin 0 0 0 rk_xcode rk_acode rk_code 5 5 5 lx la lr rk_args 2000 _
    G1 G2 G3 G4 G5 G6 G7 G8 G9 G10 G11 G12 CX CA CR eq_refl G13 rk3_heap_fits eq_refl _).
  rewrite (proj1 rk_runs). discriminate.
Qed.

(* the four machines evaluated *)
Lemma rk3_runs :
  run_linear 2000 rk_lin rk_args = ([], OExit 111106) /\
  fst (X86Sem.run_x86 20 2000 rk_xcode rk_args) = ([], OExit 111106) /\
  fst (A64Sem.run_a64 20 2000 rk_acode rk_args) = ([], OExit 111106) /\
  fst (RVSem.run_rv 20 2000 rk_code rk_args) = ([], OExit 111106).
Proof.
  split; [exact (proj1 rk_runs)|]. split; [vm_compute; reflexivity|]. split; [vm_compute; reflexivity|exact (proj2 rk_runs)].
Qed.
