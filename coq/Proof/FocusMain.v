(* C03, semantic preservation: one transition of the source machine is matched by zero or
   more transitions of the focused program ([sim_step]), for every configuration related by [crel]
   that is not a kind clash. *)
From Coq Require Import List ZArith NArith String Bool Lia.
From SCC Require Import Base.Sexp Lang.CoreSyn Sem.AxSem Sem.CoreSem Model.Backend Model.Uniquify Model.Focus
     Model.FocusCheck Proof.CoreInd Proof.FocusKont Proof.FocusRel Proof.FocusMono Proof.FocusSim Proof.FocusStep.
From SCC Require Import Model.FocusGuard.
Import ListNotations.
Open Scope list_scope.
Open Scope N_scope.

Section Main.
Variables (ps qt : cprog) (M0 : N).
Hypothesis Hcod : forall ty, is_codata qt ty = is_codata ps ty.
Hypothesis Hdefs : forall f d, cfind_def ps f = Some d ->
  exists b' mc m2, focus_stmt (cdbody d) mc = Ok (b', m2) /\ M0 <= mc /\ ids_le_stmt M0 (cdbody d) = true /\
                   cfind_def qt f = Some (mkcd (cdname d) (cdctx d) (fs2c_stmt b')).

Notation V := (V ps M0).
Notation Vs := (Vs ps M0).
Notation env_rel := (env_rel ps M0).
Notation mk_rel := (mk_rel ps M0).
Notation kv_rel := (kv_rel ps M0).
Notation crel := (crel ps M0).
Notation tsteps := (tsteps qt).
Notation thalt := (thalt qt).
Notation sres_sim := (sres_sim ps qt M0).
Notation sres_rel := (sres_rel ps M0).

Definition fs_head (t : fsterm) : Prop := match t with FsXtor _ _ _ _ | FsOp _ _ _ => False | _ => True end.

Lemma cstep_cut_heads : forall p' q' ty e', fs_head p' -> fs_head q' ->
  cstep qt (Run (CCut (fs2c_term p') ty (fs2c_term q')) e') =
  match khead (fs2c_term q') e' with
  | inl kv => cut_with_k (is_codata qt ty) (fs2c_term p') e' kv
  | inr why => stuck why
  end.
Proof. intros p' q' ty e' Hp Hq. destruct p'; try contradiction; destruct q'; try contradiction; reflexivity. Qed.

Lemma sim_cut_heads : forall p k ty e p' q' e' mc m1 m2,
  focus_term CPrd p mc = Ok (p', m1) -> focus_term CCns k m1 = Ok (q', m2) -> M0 <= mc ->
  ids_le_term M0 p = true -> ids_le_term M0 k = true -> env_rel e e' ->
  match khead k e with inl kv => clash_cut (is_codata ps ty) p e kv | inr _ => false end = false ->
  sres_sim (match khead k e with inl kv => cut_with_k (is_codata ps ty) p e kv | inr why => stuck why end)
           (Run (CCut (fs2c_term p') ty (fs2c_term q')) e').
Proof.
  intros p k ty e p' q' e' mc m1 m2 FP FK L IP IK E CL.
  destruct (khead k e) as [kv|why] eqn:KH; [|exact I].
  pose proof (focus_term_mono _ _ _ _ _ FP) as Mp.
  destruct (khead_sim ps M0 _ _ _ _ _ _ _ FK ltac:(lia) IK E KH) as (kv' & KH' & HK).
  eapply sres_rel_sim; [|apply tsteps_refl|].
  2: { rewrite cstep_cut_heads by (eapply focus_term_shape; eauto). rewrite KH', Hcod. reflexivity. }
  eapply cut_with_k_sim; eauto.
Qed.

Lemma sim_run : forall s e s' e' mc m2,
  focus_stmt s mc = Ok (s', m2) -> M0 <= mc -> ids_le_stmt M0 s = true -> env_rel e e' ->
  clash_config ps (Run s e) = false ->
  sres_sim (cstep ps (Run s e)) (Run (fs2c_stmt s') e').
Proof.
  intros s e s' e' mc m2 F L IS E CL.
  destruct s as [p ty k|so a b t el|nl a next|f args ty|a ty].
  - (* Cut *)
    simpl in IS. apply andb_true_iff in IS. destruct IS as [IP IK].
    assert (XP : forall pc px pargs pt, p = CXtor pc px pargs pt ->
                 sres_sim (cstep ps (Run (CCut p ty k) e)) (Run (fs2c_stmt s') e')).
    { intros pc px pargs pt ->. rewrite focus_cut_xtorP in F. simpl cstep. simpl in IP.
      eapply start_sim with (c := mc); eauto; try lia. apply KV_cutP; assumption. }
    assert (XK : forall qc qx qargs qt0, not_xtor p -> k = CXtor qc qx qargs qt0 ->
                 sres_sim (cstep ps (Run (CCut p ty k) e)) (Run (fs2c_stmt s') e')).
    { intros qc qx qargs qt0 NP ->. rewrite focus_cut_xtorK in F by exact NP. simpl in IK.
      replace (cstep ps (Run (CCut p ty (CXtor qc qx qargs qt0)) e))
        with (start_args ps qargs e (FinXtorK qx (MCutP (is_codata ps ty) p e)))
        by (destruct p; try contradiction; reflexivity).
      eapply start_sim with (c := mc); eauto; try lia. apply KV_cutK; assumption. }
    assert (XO : forall a o b, not_xtor k -> p = COp a o b ->
                 sres_sim (cstep ps (Run (CCut p ty k) e)) (Run (fs2c_stmt s') e')).
    { intros a o b NK ->. rewrite focus_cut_op in F by exact NK. simpl in IP. apply andb_true_iff in IP. destruct IP as [IA IB].
      replace (cstep ps (Run (CCut (COp a o b) ty k) e))
        with (SNext (Arg (CProducer a) e (MOpL o b e (MCutK k e))))
        by (destruct k; try contradiction; reflexivity).
      eexists. split; [apply tsteps_refl|].
      eapply CR_arg with (c := mc) (k := cutopL_k b o ty k); eauto; try lia.
      apply MR_cutopL; assumption. }
    assert (XH : head_prd p -> not_xtor k ->
                 sres_sim (cstep ps (Run (CCut p ty k) e)) (Run (fs2c_stmt s') e')).
    { intros HP NK. rewrite focus_cut_heads in F by assumption.
      rb2 F p' m1 FP. rb2 F q' m3 FK. okinv F.
      replace (cstep ps (Run (CCut p ty k) e))
        with (match khead k e with inl kv => cut_with_k (is_codata ps ty) p e kv | inr why => stuck why end)
        by (destruct p; try contradiction; destruct k; try contradiction; reflexivity).
      simpl fs2c_stmt. eapply sim_cut_heads; eauto.
      simpl in CL. destruct p; try contradiction; destruct k; try contradiction; exact CL. }
    destruct p; try (eapply XP; reflexivity);
      destruct k; try (eapply XK; [exact I|reflexivity]); try (eapply XO; [exact I|reflexivity]);
      apply XH; exact I.
  - (* IfC *)
    rewrite focus_ifc in F. simpl in IS. bsplit. simpl cstep.
    eexists. split; [apply tsteps_refl|].
    eapply CR_arg with (c := mc) (k := if1_k so b t el); eauto; try lia.
    apply MR_if1; assumption.
  - (* Print *)
    rewrite focus_print in F. simpl in IS. bsplit. simpl cstep.
    eexists. split; [apply tsteps_refl|].
    eapply CR_arg with (c := mc) (k := print_k nl next); eauto; try lia.
    apply MR_print; assumption.
  - (* Call *)
    rewrite focus_call in F. simpl in IS. simpl cstep.
    eapply start_sim with (c := mc); eauto; try lia. apply KV_call.
  - (* Exit *)
    rewrite focus_exit in F. simpl in IS. simpl cstep.
    eexists. split; [apply tsteps_refl|].
    eapply CR_arg with (c := mc) (k := exit_k); eauto; try lia.
    apply MR_exit.
Qed.

(* arguments: the `Bind` cases *)
Lemma sim_arg : forall a e m k c mc s' m2 e',
  bind_arg a k mc = Ok (s', m2) -> M0 <= c -> c <= mc -> ids_le_arg M0 a = true -> env_rel e e' ->
  mk_rel c m k e' ->
  sres_sim (cstep ps (Arg a e m)) (Run (fs2c_stmt s') e').
Proof.
  intros a e m k c mc s' m2 e' B L0 L1 IA E R.
  pose proof (mk_rel_kmono ps M0 _ _ _ _ R) as KM.
  destruct a as [t|t].
  - (* producers *)
    rewrite bind_arg_prd in B. simpl in IA.
    destruct t as [c0 v ty|n|a o b|c0 v s ty|c0 tag args ty|c0 cls ty].
    + (* variable *)
      rewrite bind_xvar in B. apply N.leb_le in IA. simpl cstep.
      destruct (clookup e v) as [[pv|kv]|] eqn:LK; try exact I.
      destruct (env_lookup_some ps M0 _ _ _ _ E IA LK) as (v' & LK' & HV).
      eexists. split; [apply tsteps_refl|].
      eapply CR_app with (c := c) (b := mkcb v CPrd ty); eauto; simpl; lia.
    + (* literal *)
      rewrite bind_lit in B. rb2 B s0 m3 K. okinv B. simpl cstep.
      eapply sres_rel_sim; [|apply tsteps_refl|simpl; reflexivity].
      eexists. split; [reflexivity|].
      eapply (crel_resume ps M0) with (b := mkcb ("x"%string, mc + 1) CPrd CI64) (c := c); eauto; simpl; try lia.
      constructor.
    + (* operator *)
      rewrite bind_op in B. apply andb_true_iff in IA. destruct IA as [IA IB]. simpl cstep.
      eexists. split; [apply tsteps_refl|].
      eapply CR_arg with (c := c) (k := opL_k b o k); eauto. apply MR_opL; assumption.
    + (* mu *)
      rewrite bind_mu_prd in B. rb2 B s1 ma FS. rb2 B sk m3 K. okinv B.
      apply andb_true_iff in IA. destruct IA as [_ IS].
      pose proof (focus_stmt_mono _ _ _ _ FS) as Ms.
      simpl cstep. destruct (is_codata ps ty) eqn:CD.
      * eapply sres_rel_sim; [|apply tsteps_refl|simpl; rewrite Hcod, CD; reflexivity].
        eexists. split; [reflexivity|].
        eapply (crel_resume ps M0) with (b := mkcb ("x"%string, mc + 1) CPrd ty) (c := c); eauto; simpl; try lia.
        eapply V_thunk; eauto. lia.
      * eapply sres_rel_sim; [|apply tsteps_refl|simpl; rewrite Hcod, CD; reflexivity].
        eexists. split; [reflexivity|].
        eapply CR_run; eauto; try lia. apply ER_both; [|assumption].
        eapply V_ret with (b := mkcb ("x"%string, mc + 1) CPrd ty) (c := c); eauto; simpl; lia.
    + (* constructor *)
      rewrite bind_xtor_prd in B. simpl cstep.
      eapply start_sim with (c := c); eauto. apply KV_xtorP; assumption.
    + (* cocase *)
      rewrite bind_xcase_prd in B. rb2 B sk mb K. rb2 B cls' m3 FC. okinv B.
      pose proof (KM _ _ _ _ K) as Mk.
      simpl cstep.
      eapply sres_rel_sim; [|apply tsteps_refl|simpl; reflexivity].
      eexists. split; [reflexivity|].
      eapply (crel_resume ps M0) with (b := mkcb ("x"%string, mc + 1) CPrd ty) (c := c); eauto; simpl; try lia.
      eapply V_cocase; eauto. lia.
  - (* consumers *)
    rewrite bind_arg_cns in B. simpl in IA.
    destruct t as [c0 v ty|n|a o b|c0 v s ty|c0 tag args ty|c0 cls ty]; try discriminate.
    + (* covariable *)
      rewrite bind_xvar in B. apply N.leb_le in IA. simpl cstep.
      destruct (clookup e v) as [[pv|kv]|] eqn:LK; try exact I.
      destruct (env_lookup_some ps M0 _ _ _ _ E IA LK) as (v' & LK' & HV).
      eexists. split; [apply tsteps_refl|].
      eapply CR_app with (c := c) (b := mkcb v CCns ty); eauto; simpl; lia.
    + (* mu~ *)
      rewrite bind_mu_cns in B. rb2 B sk mb K. rb2 B s1 m3 FS. okinv B.
      apply andb_true_iff in IA. destruct IA as [_ IS].
      pose proof (KM _ _ _ _ K) as Mk.
      simpl cstep. destruct (is_codata ps ty) eqn:CD.
      * eapply sres_rel_sim; [|apply tsteps_refl|simpl; rewrite Hcod, CD; reflexivity].
        eexists. split; [reflexivity|].
        eapply CR_run; eauto; try lia. apply ER_both; [|assumption].
        eapply V_delay with (b := mkcb ("a"%string, mc + 1) CCns ty) (c := c); eauto; simpl; lia.
      * eapply sres_rel_sim; [|apply tsteps_refl|simpl; rewrite Hcod, CD; reflexivity].
        eexists. split; [reflexivity|].
        eapply (crel_resume ps M0) with (b := mkcb ("a"%string, mc + 1) CCns ty) (c := c); eauto; simpl; try lia.
        eapply V_mut; eauto. lia.
    + (* destructor *)
      rewrite bind_xtor_cns in B. simpl cstep.
      eapply start_sim with (c := c); eauto. apply KV_xtorK; assumption.
    + (* case *)
      rewrite bind_xcase_cns in B. rb2 B sk mb K. rb2 B cls' m3 FC. okinv B.
      pose proof (KM _ _ _ _ K) as Mk.
      simpl cstep.
      eapply sres_rel_sim; [|apply tsteps_refl|simpl; destruct (is_codata qt ty); reflexivity].
      eexists. split; [reflexivity|].
      eapply (crel_resume ps M0) with (b := mkcb ("a"%string, mc + 1) CCns ty) (c := c); eauto; simpl; try lia.
      eapply V_case; eauto. lia.
Qed.

(* a value arrives at a machine continuation *)
Lemma as_int_some : forall v x, as_int v = Some x -> v = BP (PInt x).
Proof. intros [[]|] x H; simpl in H; try discriminate. congruence. Qed.
Lemma V_int_inv : forall x v', V (BP (PInt x)) v' -> v' = BP (PInt x).
Proof. intros x v' H. inversion H. reflexivity. Qed.
(* an integer that arrives at an arithmetic continuation is the same integer on both sides *)
Lemma V_as_int : forall v v' x, V v v' -> as_int v = Some x -> v = BP (PInt x) /\ v' = BP (PInt x).
Proof. intros v v' x HV AI. apply as_int_some in AI. subst v. apply V_int_inv in HV. auto. Qed.
Lemma fs_head_not_xtor : forall t, fs_head t -> not_xtor (fs2c_term t).
Proof. intros t H. destruct t; try contradiction; exact I. Qed.

Lemma sim_app : forall m v k b c mc sk m2 e' v',
  k b mc = Ok (sk, m2) -> M0 <= c -> c <= mc -> cid_id (cbvar b) <= mc ->
  clookup e' (cbvar b) = Some v' -> V v v' -> bkind v = cbchi b -> mk_rel c m k e' ->
  sres_sim (cstep ps (App m v)) (Run (fs2c_stmt sk) e').
Proof.
  intros m v k b c mc sk m2 e' v' K L0 L1 LB LK HV HB R.
  inversion R; subst.
  - (* MOpL *)
    simpl cstep. destruct (as_int v) as [x|] eqn:AI; [|exact I].
    destruct (V_as_int _ _ _ HV AI) as [-> ->].
    unfold opL_k in K. eexists. split; [apply tsteps_refl|].
    eapply CR_arg with (c := mc) (k := opR_k b o k0); eauto; try lia.
    apply MR_opR; [assumption | lia |]. eapply mk_rel_mono; eauto.
  - (* MOpR *)
    unfold opR_k in K. simpl in K. rb2 K s0 m3 K0. okinv K.
    simpl cstep. destruct (as_int v) as [y|] eqn:AI; [|exact I].
    destruct (V_as_int _ _ _ HV AI) as [-> ->].
    pose proof (t_op qt e' (cbvar b1) (cbvar b) x y o CI64 (CMu CCns ("x"%string, mc + 1) (fs2c_stmt s0) CI64) I H LK) as T.
    destruct (eval_op (ax_binop o) x y) as [z|w] eqn:EO.
    + eapply sres_rel_sim with
        (c1' := App (MCutK (CMu CCns ("x"%string, mc + 1) (fs2c_stmt s0) CI64) e') (BP (PInt z))).
      2: { eapply tsteps_trans0; [exact T|]. eapply tsteps_next; [simpl; rewrite EO; reflexivity | apply tsteps_refl]. }
      2: { simpl. reflexivity. }
      eexists. split; [reflexivity|].
      eapply (crel_resume ps M0) with (b := mkcb ("x"%string, mc + 1) CPrd CI64) (c := c); eauto; simpl; try lia.
      constructor.
    + simpl. eapply thalt_steps; [exact T|]. apply thalt_now. simpl. rewrite EO. reflexivity.
  - (* MOpL, operator of a cut *)
    simpl cstep. destruct (as_int v) as [x|] eqn:AI; [|exact I].
    destruct (V_as_int _ _ _ HV AI) as [-> ->].
    unfold cutopL_k in K. eexists. split; [apply tsteps_refl|].
    eapply CR_arg with (c := mc) (k := cutopR_k b o ty q); eauto; try lia.
    apply MR_cutopR; try assumption; lia.
  - (* MOpR, operator of a cut *)
    unfold cutopR_k in K. rb2 K q' m3 FK. okinv K.
    simpl cstep. destruct (as_int v) as [y|] eqn:AI; [|exact I].
    destruct (V_as_int _ _ _ HV AI) as [-> ->].
    pose proof (focus_term_shape _ _ _ _ _ FK) as SH.
    pose proof (t_op qt e' (cbvar b1) (cbvar b) x y o ty (fs2c_term q') (fs_head_not_xtor _ SH) H LK) as T.
    destruct (eval_op (ax_binop o) x y) as [z|w] eqn:EO.
    + eapply sres_rel_sim; [|exact T|simpl; rewrite EO; reflexivity].
      eexists. split; [reflexivity|]. eapply CR_cutK; eauto; try lia. constructor.
    + simpl. eapply thalt_steps; [exact T|]. apply thalt_now. simpl. rewrite EO. reflexivity.
  - (* MIf1 *)
    simpl cstep. destruct (as_int v) as [x|] eqn:AI; [|exact I].
    destruct (V_as_int _ _ _ HV AI) as [-> ->].
    unfold if1_k in K. destruct b0 as [t2|].
    + eexists. split; [apply tsteps_refl|].
      eapply CR_arg with (c := mc) (k := if2_k so b t el); eauto; try lia.
      apply MR_if2; try assumption; lia.
    + rb2 K t' m3 FT. rb2 K el' m4 FE. okinv K.
      pose proof (focus_stmt_mono _ _ _ _ FT) as Mt.
      eexists. split; [apply (t_if1 qt); exact LK|].
      destruct (eval_cmp (ax_ifsort so) x 0); eapply CR_run; eauto; lia.
  - (* MIf2 *)
    unfold if2_k in K. rb2 K t' m3 FT. rb2 K el' m4 FE. okinv K.
    simpl cstep. destruct (as_int v) as [y|] eqn:AI; [|exact I].
    destruct (V_as_int _ _ _ HV AI) as [-> ->].
    pose proof (focus_stmt_mono _ _ _ _ FT) as Mt.
    eexists. split; [apply (t_if2 qt); [exact H | exact LK]|].
    destruct (eval_cmp (ax_ifsort so) x y); eapply CR_run; eauto; lia.
  - (* MPrint *)
    unfold print_k in K. rb2 K n' m3 FN. okinv K.
    simpl cstep. destruct (as_int v) as [z|] eqn:AI; [|exact I].
    destruct (V_as_int _ _ _ HV AI) as [-> ->].
    eexists. split; [apply (t_print qt); exact LK|]. eapply CR_run; eauto; lia.
  - (* MExit *)
    unfold exit_k in K. okinv K.
    simpl cstep. destruct (as_int v) as [z|] eqn:AI; [|exact I].
    destruct (V_as_int _ _ _ HV AI) as [-> ->].
    simpl. apply (t_exit qt). exact LK.
  - (* MArgs *)
    unfold many_k in K. destruct rest as [|a r].
    + rewrite bind_many_nil in K. unfold cons_kv in K. simpl cstep.
      destruct (kv_unwind ps M0 _ _ _ _ _ H1) as (bs0 & vs0' & kvf & EQ & LKS & VR & FR).
      rewrite EQ in K.
      eapply finish_sim with (c := c) (bs := bs0 ++ [b]) (vs' := vs0' ++ [v']); eauto.
      * apply Forall2_app; [exact LKS|]. constructor; [|constructor]. split; [exact LK|].
        rewrite (V_kind _ _ _ _ HV). exact HB.
      * rewrite rev_append_rev. simpl. rewrite ?app_nil_r. apply Vs_app; [exact VR|].
        constructor; [exact HV|constructor].
    + rewrite bind_many_cons in K. simpl cstep. simpl in H0. apply andb_true_iff in H0. destruct H0 as [IA IR].
      eexists. split; [apply tsteps_refl|].
      eapply CR_arg with (c := mc) (k := many_k r (cons_kv b kv)); eauto; try lia.
      apply MR_args; try assumption.
      eapply KV_cons; eauto. eapply kv_rel_mono; eauto.
Qed.

(* the two remaining configurations: a cut whose xtor/operator side is evaluated *)
Lemma sim_cutK : forall q e q' e' mc m2 pv pv',
  focus_term CCns q mc = Ok (q', m2) -> M0 <= mc -> ids_le_term M0 q = true -> env_rel e e' ->
  V (BP pv) (BP pv') -> clash_config ps (App (MCutK q e) (BP pv)) = false ->
  sres_sim (cstep ps (App (MCutK q e) (BP pv))) (App (MCutK (fs2c_term q') e') (BP pv')).
Proof.
  intros q e q' e' mc m2 pv pv' F L IQ E HP CL. simpl cstep. simpl in CL.
  destruct (khead q e) as [kv|why] eqn:KH; [|exact I].
  destruct (khead_sim ps M0 _ _ _ _ _ _ _ F L IQ E KH) as (kv' & KH' & HK).
  eapply sres_rel_sim; [|apply tsteps_refl|simpl; rewrite KH'; reflexivity].
  apply interact_val_sim; assumption.
Qed.

Lemma sim_cutP : forall cd p e p' e' mc m2 kv kv',
  focus_term CPrd p mc = Ok (p', m2) -> M0 <= mc -> ids_le_term M0 p = true -> env_rel e e' ->
  V (BK kv) (BK kv') -> clash_config ps (App (MCutP cd p e) (BK kv)) = false ->
  sres_sim (cstep ps (App (MCutP cd p e) (BK kv))) (App (MCutP cd (fs2c_term p') e') (BK kv')).
Proof.
  intros cd p e p' e' mc m2 kv kv' F L IP E HK CL. simpl cstep. simpl in CL.
  eapply sres_rel_sim; [|apply tsteps_refl|simpl; reflexivity].
  eapply cut_with_k_sim; eauto.
Qed.

(* one source transition *)
Theorem sim_step : forall c c', crel c c' -> clash_config ps c = false -> sres_sim (cstep ps c) c'.
Proof.
  intros c c' R CL. inversion R; subst.
  - eapply sim_run; eauto.
  - eapply sim_arg; eauto.
  - eapply sim_app; eauto.
  - eapply sim_cutK; eauto.
  - eapply sim_cutP; eauto.
Qed.

End Main.
