(* C19, code generation: the instruction bound of Proof/SizeCodegen.v with the parallel-move cost
   assumed only where it is provable - for a Substitute whose old and new contexts have pairwise
   distinct ids (sub_wf, Model/SizeWf.v): [cost_model_wf], and under it  K * cg_bound_defs ds  for `translate`
   (translate_size_gen with W := True and one unit).  lin_check implies sub_wf. *)
From Coq Require Import String List ZArith NArith Bool Lia.
From SCC Require Import Base.Sexp Lang.AxSyn Lang.AxSize Model.ParMoves Model.Backend Model.Linearize Model.LinCheck Model.SizeWf
     Proof.LinBasics Proof.SizeLin Proof.SizeCodegen.
Import ListNotations.
Open Scope list_scope.
Open Scope N_scope.
Local Arguments N.add : simpl never.
Local Arguments N.mul : simpl never.
Local Arguments N.sub : simpl never.
Local Arguments N.of_nat : simpl never.
Local Arguments len : simpl never.

Lemma ctx_match_ids : forall a b, ctx_match a b = true -> ids a = ids b.
Proof.
  induction a as [|x a IH]; intros [|y b] H; simpl in H; try discriminate; [reflexivity|].
  apply andb_true_iff in H as [H H3]. apply andb_true_iff in H as [H1 _]. apply N.eqb_eq in H1.
  cbn [ids map]. rewrite H1. f_equal. apply IH. exact H3.
Qed.
Lemma split_lastn_eq : forall n c a b, split_lastn n c = Some (a, b) ->
  a = firstn (List.length c - n) c /\ b = skipn (List.length c - n) c /\ (n <= List.length c)%nat.
Proof.
  intros n c a b H. unfold split_lastn in H. destruct (Nat.leb n (List.length c)) eqn:E; inversion H.
  apply Nat.leb_le in E. auto.
Qed.

Theorem lin_check_sub_wf : forall S s c, lin_check S c s = true -> sub_wf (ids c) s = true.
Proof.
  intros S s; induction s using stmt_ind2; intros c HL.
  - cbn [lin_check] in HL. apply andb_true_iff in HL as [H1 HL]. apply andb_true_iff in HL as [_ H3].
    cbn [sub_wf]. rewrite H1. cbn [andb]. pose proof (IHs _ H3) as Hn.
    assert (E : ids (map fst re) = new_ids_of re) by (unfold ids, new_ids_of; apply map_map).
    rewrite E in Hn. rewrite Hn, andb_true_r.
    destruct s; cbn [lin_check] in H3; apply andb_true_iff in H3 as [H3 _]; rewrite E in H3; exact H3.
  - reflexivity.
  - cbn [lin_check] in HL. apply andb_true_iff in HL as [_ HL].
    destruct (split_lastn (List.length args) c) as [[c0 tl]|] eqn:E; [|discriminate].
    apply andb_true_iff in HL as [_ H3]. apply split_lastn_eq in E as (E0 & _ & _).
    cbn [sub_wf]. apply IHs in H3. rewrite ids_app, E0, ids_firstn in H3. cbn [ids map bvar] in H3. rewrite ids_length. exact H3.
  - cbn [lin_check] in HL. apply andb_true_iff in HL as [_ HL].
    destruct (split_lastn 1 c) as [[c0 [|b0 [|? ?]]]|] eqn:E; try discriminate.
    apply andb_true_iff in HL as [_ H3]. apply split_lastn_eq in E as (E0 & _ & _).
    rewrite sub_wf_switch.
    assert (Er : removelast (ids c) = ids c0).
    { rewrite <- ids_removelast, removelast_firstn_len, E0. replace (Nat.pred (List.length c)) with (List.length c - 1)%nat by lia. reflexivity. }
    clear E0. revert H3. induction H as [|[[x cx] b] r Hb Hr IHr]; intros H3; [reflexivity|].
    apply andb_true_iff in H3 as [H3 H4]. cbn [sub_wf_sw]. rewrite (IHr H4), andb_true_r, Er.
    unfold cl_body in Hb; cbn [snd] in Hb. apply Hb in H3. rewrite ids_app in H3. exact H3.
  - cbn [lin_check] in HL. apply andb_true_iff in HL as [_ HL]. destruct env as [env|]; [|discriminate].
    destruct (split_lastn (List.length env) c) as [[c0 tl]|] eqn:E; [|discriminate].
    apply andb_true_iff in HL as [HL H5]. apply andb_true_iff in HL as [HL H4]. apply andb_true_iff in HL as [H2 _].
    apply split_lastn_eq in E as (E0 & E1 & _). apply ctx_match_ids in H2.
    rewrite sub_wf_create. apply andb_true_iff. split.
    + rewrite ids_length, <- ids_skipn, <- E1, H2. clear E0 E1 H2 H5.
      revert H4. induction H as [|[[x cx] b] r Hb Hr IHr]; intros H4; [reflexivity|].
      apply andb_true_iff in H4 as [H3 H4]. cbn [sub_wf_cr]. rewrite (IHr H4), andb_true_r.
      unfold cl_body in Hb; cbn [snd] in Hb. apply Hb in H3. rewrite ids_app in H3. exact H3.
    + apply IHs in H5. rewrite ids_app, E0, ids_firstn in H5. cbn [ids map bvar] in H5. rewrite ids_length. exact H5.
  - reflexivity.
  - cbn [lin_check] in HL. apply andb_true_iff in HL as [_ HL]. apply IHs in HL. rewrite ids_app in HL. exact HL.
  - cbn [lin_check] in HL. apply andb_true_iff in HL as [_ HL]. apply andb_true_iff in HL as [_ HL].
    apply IHs in HL. rewrite ids_app in HL. exact HL.
  - cbn [lin_check] in HL. apply andb_true_iff in HL as [_ HL]. apply andb_true_iff in HL as [_ HL]. apply IHs in HL. exact HL.
  - cbn [lin_check] in HL. apply andb_true_iff in HL as [_ HL]. apply andb_true_iff in HL as [HL H2]. apply andb_true_iff in HL as [_ H1].
    cbn [sub_wf]. rewrite (IHs1 _ H1), (IHs2 _ H2). reflexivity.
  - reflexivity.
Qed.
Theorem lin_check_prog_sub_wf : forall p, lin_check_prog p = true -> sub_wf_prog p = true.
Proof.
  intros p H. unfold lin_check_prog in H. unfold sub_wf_prog, sub_wf_defs. rewrite forallb_forall in *.
  intros d Hd. eapply lin_check_sub_wf. apply (H d Hd).
Qed.

Definition cost_model_wf {Code Temp : Type} (B : backend Code Temp) (K : N) : Prop :=
  1 <= K /\
  (forall c, len (b_mark B c) <= K) /\ (forall t, len (b_jump B t) <= K) /\
  (forall l, len (b_jump_label B l) <= K) /\ (forall l, len (b_jump_label_fixed B l) <= K) /\
  (forall so a b l, len (b_jcc2 B so a b l) <= K) /\ (forall so a l, len (b_jcc1 B so a l) <= K) /\
  (forall t z, len (b_load_immediate B t z) <= K) /\ (forall t l, len (b_load_label B t l) <= K) /\
  (forall t z, len (b_add_and_jump B t z) <= K) /\ (forall o a b c, len (b_arith B o a b c) <= K) /\
  (forall a b, len (b_mov B a b) <= K) /\
  (forall nl t c, len (b_print B nl t c) <= K * (1 + len c)) /\
  (forall t lc, len (fst (b_erase B t lc)) <= K) /\ (forall t n lc, len (fst (b_share_n B t n lc)) <= K) /\
  (forall a r lc code lc', b_store B a r lc = Ok (code, lc') -> len code <= K * (1 + len a)) /\
  (forall a r lc code lc', b_load B a r lc = Ok (code, lc') -> len code <= K * (1 + len a)) /\
  (forall re c code, NoDup (ids c) -> NoDup (new_ids_of re) ->
     code_exchange B (transpose re c) c (map fst re) = Ok code -> len code <= K * (1 + len c + len re)).

Lemma cost_model_wf_exchange : forall {Code Temp : Type} (B : backend Code Temp) (K : N), cost_model_wf B K ->
  forall re c code, (True -> NoDup (ids c) /\ NoDup (new_ids_of re)) ->
  code_exchange B (transpose re c) c (map fst re) = Ok code -> len code <= K * (1 + len c + len re).
Proof. intros Code Temp B K CM re c code H. apply CM; apply H; exact I. Qed.

Theorem translate_size_wf : forall {Code Temp : Type} (B : backend Code Temp) (K : N), cost_model_wf B K ->
  forall types ds lc code lc', sub_wf_defs ds = true ->
  translate B types ds lc = Ok (code, lc') -> len code <= K * cg_bound_defs ds.
Proof.
  intros Code Temp B K CM types ds lc code lc' HW HC. rewrite <- cg_fine_defs_same.
  pose proof (cost_model_wf_exchange B K CM) as HX.
  destruct CM as (H1 & H2 & H3 & H4 & H5 & H6 & H7 & H8 & H9 & H10 & H11 & H12 & H13 & H14 & H15 & H16 & H17 & _).
  eapply (translate_size_gen B K K True); eauto.
Qed.
