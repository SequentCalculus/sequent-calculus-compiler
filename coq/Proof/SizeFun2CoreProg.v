(* C19, fun2core: whole programs.  compile_prog p = Ok c ->
     cz k (all definitions of c, the lifted share_* ones included)
        <= fz k p * (6 + (2 + k) * (fun_occ p + 2)) + entry_params p
   for every k, and without the additive term for k >= 1; read off for k = 0 (node counts: size_cprog / size_fcprog)
   and k = 1 (weighted sizes: c_wprog / f_wprog).
   fun_occ p = largest number of distinct typed variable occurrences in a definition (<= size_fcprog p);
   entry_params p = the parameters of main when main is called, else 0.
   The file also holds the statements Props/C19.v restates (fun2core_size_nodes, _weighted, _quadratic, _scoped). *)
From Coq Require Import List ZArith NArith String Bool Lia.
From SCC Require Import Base.Sexp Lang.SynUtil Lang.FunSyn Lang.FunTy Lang.CoreSyn Lang.AxSize Lang.CoreSize.
From SCC Require Import Model.Fun2Core Model.SizeFun Proof.Fun2CoreProof Proof.Fun2CoreTfv Proof.Fun2CoreInv
     Proof.Fun2CoreProg Proof.SizeLin Proof.SizeGen Proof.SizeFun2CoreFv Proof.SizeFun2Core Proof.SizeFun2CoreEntry.
Import ListNotations.
Open Scope string_scope.
Open Scope list_scope.
Open Scope N_scope.
Local Arguments N.add : simpl never.
Local Arguments N.mul : simpl never.
Local Arguments len : simpl never.

Lemma bdedup_In : forall l x, In x (bdedup l) <-> In x l.
Proof.
  induction l as [|y r IH]; intros x; cbn [bdedup]; [tauto|].
  destruct (existsb (cbinding_eqb y) r) eqn:E.
  - rewrite IH. split; [intros H; right; exact H|]. intros [H|H]; [|exact H]. subst y.
    apply existsb_exists in E. destruct E as [z [Hz Ez]]. apply cbinding_eqb_eq in Ez. subst z. exact Hz.
  - simpl. rewrite IH. tauto.
Qed.
Lemma bdedup_len : forall l, len (bdedup l) <= len l.
Proof.
  induction l as [|y r IH]; cbn [bdedup]; [lia|]. destruct (existsb (cbinding_eqb y) r); rewrite !len_cons; lia.
Qed.

Lemma f2c_factor_mono : forall k V V', V <= V' -> f2c_factor k V <= f2c_factor k V'.
Proof. intros k V V' H. unfold f2c_factor. apply N.add_le_mono_l. apply N.mul_le_mono_l. lia. Qed.
Section Prog.
  Variable k : N.
  Variable codata : list ctydecl.

  Definition Ud (d : fdef) : list cbinding := bdedup (tocc (fdbody d)).
  Definition Qd (d : fdef) : N := Q k (Ud d).
  Lemma Qd_factor : forall d, Qd d = f2c_factor k (fun_occ_def d).
  Proof. intros d. unfold Qd, Q, kL, L, f2c_factor, fun_occ_def. fold (Ud d). lia. Qed.
  Lemma Ud_incl : forall d, incl (tocc (fdbody d)) (Ud d).
  Proof. intros d x Hx. apply bdedup_In. exact Hx. Qed.

  (* a definition, with the slack that pays for the entry point when main is called: the definition node and each
     weighted parameter count 1 in fz_def and are charged Q >= 10 but cost 1, so 9 are left of each *)
  Lemma def_size_slack : forall d ul g ul', compile_def false d codata ul = Ok (g, ul') ->
    cz_defs k g + 9 * (1 + k * len (fdctx d)) <= fz_def k d * Qd d.
  Proof.
    intros d ul g ul' H. destruct (compile_def_inv _ _ _ _ _ _ H) as (bty & a & sta & body & st' & _ & Ha & Hb & -> & _).
    pose proof (fresh_covar_lz k _ _ _ Ha) as Hl. unfold lz in Hl. cbn [st_lifted cz_defs] in Hl.
    pose proof (sz_wc codata (fdname d) k (Ud d) (fdbody d) _ _ _ _ Hb (cok_var _ _ _ _) (Ud_incl d)) as Hs.
    unfold lz in Hs. rewrite Hl in Hs. cbn [cz_term] in Hs.
    cbn [cz_defs]. unfold cz_def at 1. cbn [cdctx cdbody]. rewrite len_app, len_cons, len_nil. unfold compile_ctx. rewrite len_map.
    unfold fz_def. fold (Qd d) in *. unfold P in Hs. fold (Qd d) in Hs.
    assert (Hq : 10 + 2 * k <= Qd d) by (unfold Qd; rewrite Q_eq; unfold kL, L; nia).
    assert (Hm : 10 * (k * len (fdctx d)) <= k * len (fdctx d) * Qd d) by nia.
    lia.
  Qed.

  Lemma main_size : forall d ul g ul', compile_main false d codata ul = Ok (g, ul') ->
    cz_defs k g <= fz_def k d * Qd d.
  Proof.
    intros d ul g ul' H. destruct (compile_main_inv _ _ _ _ _ _ H) as (bty & x & stx & body & st' & _ & Hx & Hb & -> & _).
    assert (Hl : cz_defs k (st_lifted stx) = 0) by (apply fresh_in_vars_inv in Hx; destruct Hx as (_ & _ & _ & Hx); rewrite Hx; reflexivity).
    assert (Hc : cok (Ud d) (CMu CCns (new_id x) (CExit (CXVar CPrd (new_id x) (compile_ty bty)) (compile_ty bty)) (compile_ty bty))).
    { split; [reflexivity|]. exists (mkcb (new_id x) CPrd (compile_ty bty)). intros bb Hbb. apply fvt_mu_1 in Hbb.
      apply fvs_exit in Hbb. apply fvt_var in Hbb. left. symmetry. exact Hbb. }
    pose proof (sz_wc codata (fdname d) k (Ud d) (fdbody d) _ _ _ _ Hb Hc (Ud_incl d)) as Hs.
    unfold lz in Hs. rewrite Hl in Hs. cbn [cz_term cz_stmt] in Hs.
    cbn [cz_defs]. unfold cz_def at 1. cbn [cdctx cdbody]. unfold compile_ctx. rewrite len_map.
    unfold fz_def. fold (Qd d) in *. unfold P in Hs. fold (Qd d) in Hs.
    pose proof (mulQ_ge k (Ud d) (k * len (fdctx d))) as Hm. fold (Qd d) in Hm.
    assert (Hq : 2 <= Qd d) by (unfold Qd; rewrite Q_eq; lia). lia.
  Qed.

  (* the definitions that come first: compile_main of main, or (main is called) the entry point and main compiled by
     compile_def.  The entry point costs 5 + (1 + k) * #params units: paid by the slack of main's own bound, except - for
     node counts, k = 0 - the #params variables of the call; of the slack 9 * (1 + k * #params), 5 + k * #params go to the rest of the entry
     point, so 8 k #params (and 4) are left: for k >= 1 they cover the #params variables *)
  Lemma main_group_size : forall called d ul g ul', compile_main_group false called d codata ul = Ok (g, ul') ->
    cz_defs k g + (if called then 8 * (k * len (fdctx d)) else 0) <= fz_def k d * Qd d + (if called then len (fdctx d) else 0).
  Proof.
    intros called d ul g ul' H.
    destruct (compile_main_group_inv _ _ _ _ _ _ _ H) as [[Hc Hm]|[Hc [nm [e [ule [m [_ [He [Hm ->]]]]]]]]];
      rewrite andb_true_r in Hc; subst called.
    - pose proof (main_size _ _ _ _ Hm). lia.
    - rewrite cz_defs_app, (entry_size k _ _ _ _ _ _ He). pose proof (def_size_slack _ _ _ _ Hm). lia.
  Qed.

  Lemma defs_size : forall called defs ul front back res,
    compile_defs false called defs codata ul front back = Ok res ->
    cz_defs k res + (if called then 8 * (k * nsum main_params defs) else 0)
    <= cz_defs k front + cz_defs k back + nsum (fun d => fz_def k d * Qd d) defs
       + (if called then nsum main_params defs else 0).
  Proof.
    intros called. induction defs as [|d r IH]; intros ul front back res H; cbn [compile_defs] in H.
    - inversion H; subst. rewrite cz_defs_app, cz_defs_rev_append. cbn [cz_defs nsum]. destruct called; lia.
    - rewrite !nsum_cons. unfold main_params at 1 3. destruct (String.eqb (fdname d) "main").
      + destruct (compile_main_group false called d codata ul) as [g|e] eqn:E; [|discriminate]. cbn [rbind] in H.
        apply IH in H. rewrite cz_defs_app in H. destruct g as [g ul']. pose proof (main_group_size _ _ _ _ _ E). cbn [fst] in H.
        destruct called; lia.
      + destruct (compile_def false d codata ul) as [g|e] eqn:E; [|discriminate]. cbn [rbind] in H.
        apply IH in H. rewrite cz_defs_rev_append in H. destruct g as [g ul']. pose proof (def_size_slack _ _ _ _ E). cbn [fst] in H.
        destruct called; lia.
  Qed.
End Prog.

Lemma fun_occ_def_le : forall p d, In d (fcpdefs p) -> fun_occ_def d <= fun_occ p.
Proof.
  intros p d H. unfold fun_occ. induction (fcpdefs p) as [|y r IH]; [contradiction|].
  cbn [map fold_right]. destruct H as [H|H]; [subst; lia|]. specialize (IH H). lia.
Qed.

Lemma defs_factor : forall k p l, (forall d, In d l -> In d (fcpdefs p)) ->
  nsum (fun d => fz_def k d * Qd k d) l <= nsum (fz_def k) l * f2c_factor k (fun_occ p).
Proof.
  intros k p. induction l as [|d r IH]; intros Hin; [cbn [nsum]; lia|]. rewrite !nsum_cons, N.mul_add_distr_r.
  apply N.add_le_mono; [|apply IH; intros d' Hd'; apply Hin; right; exact Hd'].
  apply N.mul_le_mono_l. rewrite Qd_factor. apply f2c_factor_mono. apply fun_occ_def_le. apply Hin. left. reflexivity.
Qed.
(* a program in which main is called gets one more definition (fix f929eb7 of /repo), the entry point
   def main<n>(params) { main(params, mu~x. exit x) }  of 5 + (1 + k) * #params units.  The slack of main's own bound pays
   for all of it but the #params argument variables when k = 0 (the parameters of a definition are not nodes of the
   source): additive term entry_params p (Model/SizeFun.v; 0 when main is not called); none for k >= 1 *)
Lemma compile_prog_size : forall k p c, compile_prog p = Ok c ->
  cz_defs k (cpdefs c) + k * (8 * entry_params p) <= fz_prog k p * f2c_factor k (fun_occ p) + entry_params p.
Proof.
  intros k p c H. unfold compile_prog, compile_prog_gen in H.
  match type of H with rbind ?e _ = _ => destruct e as [defs|e0] eqn:E; [|discriminate] end.
  cbn [rbind] in H. inversion H; subst; clear H. cbn [cpdefs].
  apply defs_size with (k := k) in E. cbn [cz_defs] in E.
  pose proof (defs_factor k p (fcpdefs p) (fun d H => H)) as F.
  unfold fz_prog, entry_params. destruct (calls_main_prog p); lia.
Qed.
Theorem fun2core_size_gen : forall k p c, compile_prog p = Ok c ->
  cz_defs k (cpdefs c) <= fz_prog k p * f2c_factor k (fun_occ p) + entry_params p.
Proof. intros k p c H. pose proof (compile_prog_size k p c H). lia. Qed.
Theorem fun2core_size_gen_weighted : forall k p c, 1 <= k -> compile_prog p = Ok c ->
  cz_defs k (cpdefs c) <= fz_prog k p * f2c_factor k (fun_occ p).
Proof. intros k p c Hk H. pose proof (compile_prog_size k p c H). nia. Qed.
Lemma entry_params_ncm : forall p, calls_main_prog p = false -> entry_params p = 0.
Proof. intros p H. unfold entry_params. rewrite H. reflexivity. Qed.
(* the additive term is at most the weighted source size (which counts the parameters of every definition) *)
Lemma entry_params_le : forall p, entry_params p <= f_wprog p.
Proof.
  intros p. unfold entry_params, f_wprog, fz_prog. destruct (calls_main_prog p); [|lia].
  induction (fcpdefs p) as [|d r IH]; [cbn [nsum]; lia|]. rewrite !nsum_cons.
  apply N.add_le_mono; [|exact IH]. unfold main_params, fz_def. destruct (String.eqb (fdname d) "main"); lia.
Qed.

Lemma fz0_size : forall t, fz 0 t = size_fterm t.
Proof.
  induction t using fterm_ind'; cbn [fz size_fterm]; try congruence.
  - rewrite IHt1, IHt2, IHt3. destruct b as [b'|]; [simpl in H; rewrite H|]; reflexivity.
  - f_equal. induction H as [|y r Hy Hr IH]; [reflexivity|]. cbn [nsum]. rewrite Hy, IH. reflexivity.
  - f_equal. induction H as [|y r Hy Hr IH]; [reflexivity|]. cbn [nsum]. rewrite Hy, IH. reflexivity.
  - rewrite IHt. f_equal. induction H as [|y r Hy Hr IH]; [reflexivity|]. cbn [nsum]. rewrite Hy, IH. reflexivity.
  - rewrite IHt. f_equal. induction H as [|y r Hy Hr IH]; [reflexivity|]. cbn [nsum]. rewrite IH.
    destruct y as [pl x names ctx body]. cbn [clause_body size_fclause] in *. rewrite Hy. lia.
  - f_equal. induction H as [|y r Hy Hr IH]; [reflexivity|]. cbn [nsum]. rewrite IH.
    destruct y as [pl x names ctx body]. cbn [clause_body size_fclause] in *. rewrite Hy. lia.
Qed.
Lemma fsum_sizes_acc : forall {X} (f : X -> N) l a, fold_left (fun acc x => acc + f x) l a = a + nsum f l.
Proof.
  intros X f l. induction l as [|x r IH]; intros a; cbn [fold_left nsum]; [lia|]. rewrite IH. lia.
Qed.
Lemma fz0_prog : forall p, fz_prog 0 p = size_fcprog p.
Proof.
  intros p. unfold fz_prog, size_fcprog, fsum_sizes. rewrite fsum_sizes_acc, N.add_0_l.
  induction (fcpdefs p) as [|d r IH]; [reflexivity|]. cbn [nsum]. rewrite IH. f_equal.
  unfold fz_def, size_fdef. rewrite fz0_size. lia.
Qed.

(* the number of typed occurrences is at most the node count *)
Lemma occ_arg_len : forall y, len (tocc y) <= size_fterm y -> len (occ_arg y) <= size_fterm y.
Proof.
  intros y H. unfold occ_arg, occ_arg_with. destruct y; try exact H. destruct chi as [[|]|]; try exact H.
  unfold occ_cns. destruct ty; cbn [size_fterm]; rewrite ?len_cons, ?len_nil; lia.
Qed.
Lemma tocc_len : forall t, len (tocc t) <= size_fterm t.
Proof.
  induction t using fterm_ind'; cbn [tocc size_fterm]; fold occ_arg; rewrite ?len_app.
  - unfold occ_prd. destruct ty as [ty0|]; rewrite ?len_cons, ?len_nil; lia.
  - rewrite len_nil. lia.
  - lia.
  - destruct b as [b'|]; [simpl in H|rewrite len_nil]; lia.
  - lia.
  - lia.
  - assert (G : len (flat_map occ_arg args) <= (fix go (l : list fterm) : N := match l with [] => 0 | y :: r => size_fterm y + go r end) args).
    { induction H as [|y r Hy Hr IH]; [cbn [flat_map]; rewrite len_nil; lia|]. cbn [flat_map]. rewrite len_app. pose proof (occ_arg_len y Hy). lia. }
    lia.
  - assert (G : len (flat_map occ_arg args) <= (fix go (l : list fterm) : N := match l with [] => 0 | y :: r => size_fterm y + go r end) args).
    { induction H as [|y r Hy Hr IH]; [cbn [flat_map]; rewrite len_nil; lia|]. cbn [flat_map]. rewrite len_app. pose proof (occ_arg_len y Hy). lia. }
    lia.
  - assert (G : len (flat_map occ_arg args) <= (fix go (l : list fterm) : N := match l with [] => 0 | y :: r => size_fterm y + go r end) args).
    { induction H as [|y r Hy Hr IH]; [cbn [flat_map]; rewrite len_nil; lia|]. cbn [flat_map]. rewrite len_app. pose proof (occ_arg_len y Hy). lia. }
    lia.
  - assert (G : len (flat_map (fun c => match c with FClause _ _ _ _ body => tocc body end) cls) <=
                (fix go (l : list fclause) : N := match l with [] => 0 | y :: r => size_fclause y + go r end) cls).
    { induction H as [|y r Hy Hr IH]; [cbn [flat_map]; rewrite len_nil; lia|]. cbn [flat_map]. rewrite len_app.
      destruct y as [pl x names ctx body]. cbn [clause_body size_fclause] in *. lia. }
    lia.
  - assert (G : len (flat_map (fun c => match c with FClause _ _ _ _ body => tocc body end) cls) <=
                (fix go (l : list fclause) : N := match l with [] => 0 | y :: r => size_fclause y + go r end) cls).
    { induction H as [|y r Hy Hr IH]; [cbn [flat_map]; rewrite len_nil; lia|]. cbn [flat_map]. rewrite len_app.
      destruct y as [pl x names ctx body]. cbn [clause_body size_fclause] in *. lia. }
    lia.
  - lia.
  - unfold occ_goto, occ_cns. destruct (fterm_type t); rewrite ?len_cons, ?len_nil; lia.
  - lia.
  - lia.
Qed.
Lemma fun_occ_le_size : forall p, fun_occ p <= size_fcprog p.
Proof.
  intros p. rewrite <- fz0_prog. unfold fun_occ, fz_prog. induction (fcpdefs p) as [|d r IH]; [cbn; lia|].
  cbn [map fold_right nsum]. assert (fun_occ_def d <= fz_def 0 d); [|lia].
  unfold fun_occ_def, fz_def. rewrite fz0_size. pose proof (bdedup_len (tocc (fdbody d))). pose proof (tocc_len (fdbody d)). lia.
Qed.

Theorem fun2core_size_nodes : forall p c, compile_prog p = Ok c ->
  size_cprog c <= size_fcprog p * (10 + 2 * fun_occ p) + entry_params p.
Proof.
  intros p c H. rewrite <- cz0_prog, <- fz0_prog. eapply N.le_trans; [apply fun2core_size_gen; exact H|].
  apply N.add_le_mono_r. apply N.mul_le_mono_l. unfold f2c_factor. lia.
Qed.
Theorem fun2core_size_weighted : forall p c, compile_prog p = Ok c ->
  c_wprog c <= f_wprog p * (12 + 3 * fun_occ p).
Proof.
  intros p c H. rewrite <- cz1_prog. unfold f_wprog. eapply N.le_trans; [apply fun2core_size_gen_weighted; [lia | exact H]|].
  apply N.mul_le_mono_l. unfold f2c_factor. lia.
Qed.
Theorem fun2core_size_quadratic : forall p c, compile_prog p = Ok c ->
  size_cprog c <= size_fcprog p * (10 + 2 * size_fcprog p) + entry_params p.
Proof.
  intros p c H. eapply N.le_trans; [apply fun2core_size_nodes; exact H|].
  apply N.add_le_mono_r. apply N.mul_le_mono_l. pose proof (fun_occ_le_size p). lia.
Qed.
Lemma f2c_bound_nodes_eq : forall p, f2c_bound_nodes p = size_fcprog p * (10 + 2 * fun_occ p) + entry_params p.
Proof. intros. unfold f2c_bound_nodes, f2c_factor. f_equal. f_equal. lia. Qed.
Lemma f2c_bound_weighted_eq : forall p, f2c_bound_weighted p = f_wprog p * (12 + 3 * fun_occ p).
Proof. intros. unfold f2c_bound_weighted, f2c_factor. f_equal. lia. Qed.

Lemma bdedup_NoDup : forall l, NoDup (bdedup l).
Proof.
  induction l as [|y r IH]; cbn [bdedup]; [constructor|].
  destruct (existsb (cbinding_eqb y) r) eqn:E; [exact IH|]. constructor; [|exact IH].
  intros H. apply (proj1 (bdedup_In _ _)) in H. assert (existsb (cbinding_eqb y) r = true); [|congruence].
  apply existsb_exists. exists y. split; [exact H | apply cbinding_eqb_eq; reflexivity].
Qed.
Lemma occ_scoped_def_le : forall d, occ_scoped_def d = true -> fun_occ_def d <= len (def_tb d).
Proof.
  intros d H. unfold fun_occ_def, len.
  assert (List.length (bdedup (tocc (fdbody d))) <= List.length (def_tb d))%nat; [|lia].
  apply NoDup_incl_length; [apply bdedup_NoDup|]. intros b Hb. apply (proj1 (bdedup_In _ _)) in Hb.
  unfold occ_scoped_def in H. rewrite forallb_forall in H. specialize (H b Hb).
  apply existsb_exists in H. destruct H as [b' [Hin E]]. apply cbinding_eqb_eq in E. subst b'. exact Hin.
Qed.
Lemma occ_scoped_le : forall p, occ_scoped p = true -> fun_occ p <= fun_tb p.
Proof.
  intros p H. unfold occ_scoped in H. unfold fun_occ, fun_tb. induction (fcpdefs p) as [|d r IH]; [cbn; lia|].
  cbn [forallb] in H. apply andb_true_iff in H as [H1 H2]. cbn [map fold_right].
  pose proof (occ_scoped_def_le d H1). specialize (IH H2). lia.
Qed.
Theorem fun2core_size_scoped : forall p c, compile_prog p = Ok c -> occ_scoped p = true ->
  size_cprog c <= size_fcprog p * (10 + 2 * fun_tb p) + entry_params p /\ c_wprog c <= f_wprog p * (12 + 3 * fun_tb p).
Proof.
  intros p c H S. pose proof (occ_scoped_le p S) as L. split.
  - eapply N.le_trans; [apply fun2core_size_nodes; exact H|]. apply N.add_le_mono_r. apply N.mul_le_mono_l. lia.
  - eapply N.le_trans; [apply fun2core_size_weighted; exact H|]. apply N.mul_le_mono_l. lia.
Qed.
