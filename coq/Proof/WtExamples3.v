(* Proof/WtExamples3.v (property C12): calls of `main` are inside the guards (fix f929eb7 of /repo).
   The two witnesses of the former finding call-to-main - corpus/fun/call_main_nontail.sc ([call_main_witness] of
   Model/Fun2Core.v) and corpus/fun/call_main_tail.sc ([call_main_tail_witness] of Model/WtDefs.v), both as the type checker
   annotates them - call main, satisfy prog_tyguard, prog_tyguard_src and xtor_tys_guard, are outputs of the model of
   the checker, and so by the THEOREMS (not by evaluation) their translations exist and are well typed; the
   conclusions are evaluated too (f2c_ok, focus_ok).  The statement guarded by prog_tyguard was FALSE of the
   translation before the fix. *)
From Coq Require Import List ZArith NArith String Bool.
From SCC Require Import Lang.FunSyn Lang.CoreSyn Model.Check Sem.FunErase Sem.FsCheck Sem.CoreCheck
     Model.Fun2Core Model.Fun2CoreTyGuard Model.WtDefs Proof.Fun2CoreProof Proof.Fun2CoreTyProg Proof.Fun2CoreTyTotal
     Proof.Fun2CoreTyChecked Proof.Fun2CoreTyRefute Proof.WtExamples2.
Import ListNotations.
Open Scope string_scope.

(* [WtDefs.call_main_tail_witness]: corpus/fun/call_main_tail.sc as the type checker annotates it (main is called in tail
   position only; modelrun wt-stages compares the value with the real CheckedProgram on every run) *)
Definition call_main_tail_source : fprog :=
  mkfprog (map (fun d => FDDef (erase_def d)) (fcpdefs call_main_tail_witness)).

Lemma call_main_witnesses_checked :
  Check.check call_main_source = COk call_main_witness /\ Check.check call_main_tail_source = COk call_main_tail_witness.
Proof. split; vm_compute; reflexivity. Qed.

Lemma call_main_witnesses_in_guard :
  forallb (fun p => calls_main_prog p && prog_tyguard p && prog_tyguard_src p && xtor_tys_guard p && f2c_ok p && focus_ok p)
          [call_main_witness; call_main_tail_witness] = true.
Proof. vm_compute. reflexivity. Qed.

(* by the theorems: the translation of both witnesses exists and is well typed *)
Lemma call_main_witnesses_typed : forall p, In p [call_main_witness; call_main_tail_witness] ->
  exists c, compile_prog p = Fun2Core.Ok c /\ wt_core c = true.
Proof.
  intros p Hp.
  assert (Hg : prog_tyguard p = true) by (destruct Hp as [<-|[<-|[]]]; vm_compute; reflexivity).
  destruct (fun2core_total_guarded p Hg) as [c Hc]. exists c. split; [exact Hc|].
  exact (fun2core_preserves_typing_frag2 p c Hg Hc).
Qed.

(* the entry point: the translation of a program that calls main has one definition more than the source, the first one
   is the entry point under a fresh label and takes main's parameters (no return continuation), the second is main with a
   return continuation *)
Lemma call_main_witness_entry :
  match compile_prog call_main_witness with
  | Fun2Core.Ok c =>
      match cpdefs c with
      | e :: m :: _ => cident_eqb (cdname e) (new_id "main0") && cident_eqb (cdname m) (new_id "main")
                       && Nat.eqb (List.length (cdctx e)) 1 && Nat.eqb (List.length (cdctx m)) 2
      | _ => false
      end
  | Fun2Core.Err _ => false
  end = true.
Proof. vm_compute. reflexivity. Qed.

(* REGRESSION: the guarded statement was false of the translation before fix f929eb7 *)
Lemma fun2core_guarded_typing_refuted_before_fix :
  ~ (forall p c, prog_tyguard p = true -> compile_prog_before_fix p = Fun2Core.Ok c -> wt_core c = true).
Proof.
  intro H. destruct fun2core_call_main_typing_refuted_before_fix_lemma as (src & p & c & _ & _ & _ & Ec & Hw & _ & _ & _ & Hg).
  rewrite (H p c Hg Ec) in Hw. discriminate.
Qed.
