(* C09 on AArch64: the two seeded defects of memory.rs, put into the model, REFUTE the refinement statements on concrete
   states (by evaluation of the ISA model): the theorems C09_a64_acquire_block_spill and C09_a64_load are statements that
   cannot be proved for those variants.
     defect 1  `acquire_block` into a spill slot initialises the header of the wrong block (`STR XZR, [HEAP]` instead of
               `STR XZR, [TEMP]` in the branch that takes the next block of the reuse list);
     defect 2  `register_freed` is not reset between the Release and the Share call of `load_fields` in `load_register`.
   Both leave every result of a program right for a long time (a leaked block; a clobbered X10 only when the shared
   object is loaded behind 13 or more variables): they were found by the heap-invariant runs, not by C07's result check. *)
From Coq Require Import List ZArith NArith String Bool Lia FMapPositive.
From SCC Require Import Base.Sexp Lang.AxSyn Sem.AxSem Model.Backend Model.A64 Sem.A64Sem Generated.Constants
     Proof.A64State Proof.A64Exec Proof.A64Mem Proof.A64MemOps Proof.A64MemLoad Proof.A64MemLoadChain.
From SCC Require Model.Heap Proof.X86MemStoreChain.
Import ListNotations.
Open Scope list_scope.
Open Scope Z_scope.

(* the state in which a piece of code placed at index 1 stops (it runs off its end) *)
Definition final_state (cs : list acode) (s : astate) : option astate :=
  match run_chunk 2000 (mk_image cs) 1%positive s with Finished _ s' => Some s' | More _ _ => None end.

Definition acquire_block_bad (new_block : atemp) (lc : N) : list acode * N :=
  let c0 := match new_block with
            | AR r => [MOVR r HEAP]
            | AS p => [MOVR TEMP HEAP; STR HEAP SP (stack_offset p)]
            end ++ [LDR HEAP HEAP NEXT_ELEMENT_OFFSET] in
  let then_branch_free := [ADDI FREE HEAP (field_offset Fst FIELDS_PER_BLOCK)] in
  let '(ef, lc1) := erase_fields HEAP lc in
  let else_branch_free := [STR XZR HEAP NEXT_ELEMENT_OFFSET] ++ ef in
  let '(inner, lc2) := if_zero_then_else FREE then_branch_free else_branch_free lc1 in
  let then_branch := [MOVR HEAP FREE; LDR FREE FREE NEXT_ELEMENT_OFFSET] ++ inner in
  let else_branch := match new_block with
                     | AR r => [STR XZR r REFERENCE_COUNT_OFFSET]
                     | AS _ => [STR XZR HEAP REFERENCE_COUNT_OFFSET]      (* <- the seeded defect *)
                     end in
  let '(outer, lc3) := if_zero_then_else HEAP then_branch else_branch lc2 in
  (c0 ++ outer, lc3).

(* the reuse list holds two blocks: HEAP -> B0 -> B1 -> 0; the deferred list is empty *)
Definition d1_sp : Z := STACK_TOP - 4096.
Definition d1_state : astate :=
  let r := rset (rset (rset (init_state []) SP (Some d1_sp)) HEAP (Some HEAP_BASE)) FREE (Some (HEAP_BASE + 128)) in
  hset r HEAP_BASE (HEAP_BASE + 64).

(* the good code refines Heap.acquire: the header of the acquired block B0 is cleared, the link of B1 stays;
   the defective code leaves the free-list link in the acquired block (a count of 2^28 + 64) and cuts the reuse list
   behind B1's predecessor: the abstraction of the final state is NOT Heap.acquire of the abstraction of the first *)
Example defect1_refutes_acquire_spill :
  let a := abs_heap (HEAP_BASE + 128) d1_state in
  fst (Heap.acquire a) = HEAP_BASE /\ Heap.hdr (Heap.m (snd (Heap.acquire a)) HEAP_BASE) = 0 /\
  (exists s', final_state (fst (acquire_block (AS 1) 0)) d1_state = Some s' /\
              sget s' d1_sp 1 = Some HEAP_BASE /\ hword s' HEAP_BASE = 0 /\ rget s' HEAP = Some (HEAP_BASE + 64)) /\
  (exists s', final_state (fst (acquire_block_bad (AS 1) 0)) d1_state = Some s' /\
              sget s' d1_sp 1 = Some HEAP_BASE /\ hword s' HEAP_BASE = HEAP_BASE + 64 /\
              ~ st_eqB (abs_heap (HEAP_BASE + 128) s') (snd (Heap.acquire a))).
Proof.
  cbv zeta. split; [vm_compute; reflexivity|]. split; [vm_compute; reflexivity|]. split.
  - eexists. split; [vm_compute; reflexivity|]. split; [vm_compute; reflexivity|]. split; vm_compute; reflexivity.
  - eexists. split; [vm_compute; reflexivity|]. split; [vm_compute; reflexivity|]. split; [vm_compute; reflexivity|].
    intros (_ & _ & _ & E).
    assert (B : is_blk HEAP_BASE) by (exists 0; split; [lia|]; split; [reflexivity|]; unfb; lia).
    specialize (E HEAP_BASE B). apply (f_equal Heap.hdr) in E. vm_compute in E. discriminate.
Qed.

Definition load_register_bad (block : areg) (to_load existing : ctx) (lc : N) : res (list acode * N) :=
  dor r1 <- load_fields (S (List.length to_load)) to_load existing Last Release false lc;
  let '(then_branch, freed1, lc1) := r1 in
  dor r2 <- load_fields (S (List.length to_load)) to_load existing Last Share freed1 lc1;   (* <- flag not reset *)
  let '(else_body, _, lc2) := r2 in
  let else_branch := [SUBI TEMP2 TEMP2 1; STR TEMP2 block REFERENCE_COUNT_OFFSET] ++ else_body in
  Ok (if_zero_then_else TEMP2 then_branch else_branch lc2).
Definition a_load_bad (to_load existing : ctx) (lc : N) : res (list acode * N) :=
  match to_load with
  | [] => Ok ([], lc)
  | _ =>
      dor memory_block <- a_fresh Fst existing;
      match memory_block with
      | AR r =>
          dor c <- load_register_bad r to_load existing lc;
          Ok ([LDR TEMP2 r REFERENCE_COUNT_OFFSET] ++ fst c, snd c)
      | AS p =>
          dor c <- load_register_bad TEMP to_load existing lc;
          Ok ([LDR TEMP SP (stack_offset p); LDR TEMP2 TEMP REFERENCE_COUNT_OFFSET] ++ fst c, snd c)
      end
  end.
Definition ex13_code_bad : list acode :=
  match a_load_bad X86MemStoreChain.ex5_store ex13_existing 0 with Ok (cs, _) => cs | Err _ => [] end.

(* the shared two-block object of Proof/A64MemLoadChain.v `a64_load_example` behind 13 variables (X10 = 777 is the first
   temporary of variable 3 = `tpos 6`): the good code restores X10, the defective code does not (the Share branch reloads
   it from slot 0, which holds nothing) - the conjunct "the temporaries of the existing variables are unchanged" of
   C09_a64_load is false for it *)
Example defect2_refutes_load :
  lget ex13_state A64MemLoadChain.ex_sp (tpos 6) = Some 777 /\ (6 < 2 * N.of_nat (List.length ex13_existing))%N /\
  (exists s', final_state ex13_code ex13_state = Some s' /\ lget s' A64MemLoadChain.ex_sp (tpos 6) = Some 777) /\
  (exists s', final_state ex13_code_bad ex13_state = Some s' /\ lget s' A64MemLoadChain.ex_sp (tpos 6) <> Some 777).
Proof.
  split; [vm_compute; reflexivity|]. split; [vm_compute; reflexivity|]. split.
  - eexists. split; vm_compute; reflexivity.
  - eexists. split; [vm_compute; reflexivity|]. vm_compute. discriminate.
Qed.
Print Assumptions defect1_refutes_acquire_spill.
Print Assumptions defect2_refutes_load.
