(* Facts about the two typing disciplines:
   - `ax_check` depends on the context only through the lookups of the free variables
     and is stable under the renamings `Create` performs;
   - `lin_wt`, the ordered linear discipline as an inductive predicate, and soundness of the
     boolean checker `lin_check`. *)
From Coq Require Import String List ZArith NArith Bool Lia Permutation.
From SCC Require Import Base.Sexp Lang.AxSyn Model.Linearize Model.LinCheck Proof.LinBasics.
Import ListNotations.
Open Scope list_scope.
Open Scope N_scope.

Lemma forallb_eq : forall {A} (f g : A -> bool) l, (forall x, In x l -> f x = g x) -> forallb f l = forallb g l.
Proof.
  induction l as [|x l IH]; intros H; simpl; auto.
  rewrite (H x) by (simpl; auto). rewrite IH; auto. intros; apply H; simpl; auto.
Qed.

Lemma has_b_lookup : forall c c' b,
  lookup_b c (idn (bvar b)) = lookup_b c' (idn (bvar b)) -> has_b c b = has_b c' b.
Proof. intros; unfold has_b; apply has_ext_lookup; auto. Qed.

Theorem ax_check_ext : forall S s c c',
  (forall x, In x (fv s) -> lookup_b c x = lookup_b c' x) -> ax_check S c s = ax_check S c' s.
Proof.
  intros S s; induction s using stmt_ind2; intros c c' Hfv.
  - reflexivity.
  - simpl. destruct (lookup_label S l); auto. f_equal.
    apply forallb_eq. intros b Hb. apply has_b_lookup. apply Hfv. simpl.
    apply union_In. left. apply In_ids; auto.
  - simpl. f_equal; [f_equal|].
    + apply forallb_eq. intros b Hb. apply has_b_lookup. apply Hfv. simpl.
      apply union_In. left. apply In_ids; auto.
    + apply IHs. intros x Hx. rewrite !lookup_b_cons. simpl.
      destruct (N.eqb (idn v) x) eqn:E; auto. apply N.eqb_neq in E.
      apply Hfv. simpl. apply union_In. right. apply remove_In. split; auto.
  - rewrite !ax_check_switch. f_equal; [f_equal|].
    + apply has_ext_lookup. apply Hfv. rewrite fv_switch. apply add_In; auto.
    + unfold ax_clauses. apply forallb_eq. intros cl Hcl.
      rewrite Forall_forall in H. apply H; auto.
      intros x Hx. rewrite !lookup_b_app.
      destruct (lookup_b (cl_ctx cl) x) eqn:E; auto.
      apply Hfv. rewrite fv_switch. apply add_In. right. apply fv_clauses_In.
      exists cl. repeat split; auto. apply lookup_b_None; auto.
  - rewrite !ax_check_create. f_equal; [f_equal|].
    + unfold ax_clauses. apply forallb_eq. intros cl Hcl.
      rewrite Forall_forall in H. apply H; auto.
      intros x Hx. rewrite !lookup_b_app.
      destruct (lookup_b (cl_ctx cl) x) eqn:E; auto.
      apply Hfv. rewrite fv_create. apply union_In. left. apply fv_clauses_In.
      exists cl. repeat split; auto. apply lookup_b_None; auto.
    + apply IHs. intros x Hx. rewrite !lookup_b_cons. simpl.
      destruct (N.eqb (idn v) x) eqn:E; auto. apply N.eqb_neq in E.
      apply Hfv. rewrite fv_create. apply union_In. right. apply remove_In. split; auto.
  - simpl. f_equal; [f_equal|].
    + apply has_ext_lookup. apply Hfv. simpl. apply add_In; auto.
    + apply forallb_eq. intros b Hb. apply has_b_lookup. apply Hfv. simpl.
      apply add_In. right. apply union_In. left. apply In_ids; auto.
  - simpl. apply IHs. intros x Hx. rewrite !lookup_b_cons. simpl.
    destruct (N.eqb (idn v) x) eqn:E; auto. apply N.eqb_neq in E.
    apply Hfv. simpl. apply remove_In. split; auto.
  - simpl. f_equal; [f_equal|].
    + apply has_ext_lookup. apply Hfv. simpl. apply add_In. right. apply add_In. auto.
    + apply has_ext_lookup. apply Hfv. simpl. apply add_In. auto.
    + apply IHs. intros x Hx. rewrite !lookup_b_cons. simpl.
      destruct (N.eqb (idn v) x) eqn:E; auto. apply N.eqb_neq in E.
      apply Hfv. simpl. apply add_In. right. apply add_In. right. apply remove_In. split; auto.
  - simpl. f_equal.
    + apply has_ext_lookup. apply Hfv. simpl. apply add_In; auto.
    + apply IHs. intros x Hx. apply Hfv. simpl. apply add_In; auto.
  - simpl. destruct b as [b|]; simpl.
    + f_equal; [f_equal; [f_equal|]|].
      * apply has_ext_lookup. apply Hfv. apply add_In. right. apply add_In. auto.
      * apply has_ext_lookup. apply Hfv. apply add_In. auto.
      * apply IHs1. intros x Hx. apply Hfv. apply add_In. right. apply add_In. right. apply union_In. auto.
      * apply IHs2. intros x Hx. apply Hfv. apply add_In. right. apply add_In. right. apply union_In. auto.
    + f_equal; [f_equal; [f_equal|]|].
      * apply has_ext_lookup. apply Hfv. apply add_In. auto.
      * apply IHs1. intros x Hx. apply Hfv. apply add_In. right. apply union_In. auto.
      * apply IHs2. intros x Hx. apply Hfv. apply add_In. right. apply union_In. auto.
  - simpl. apply has_ext_lookup. apply Hfv. simpl; auto.
Qed.

Definition sub_n (su : list (N * ident)) (n : N) : N :=
  match find (fun p => N.eqb (fst p) n) su with Some p => idn (snd p) | None => n end.
Lemma sub_id_n : forall su x, idn (sub_id su x) = sub_n su (idn x).
Proof. intros; unfold sub_id, sub_n. destruct (find _ su); auto. Qed.
Lemma sub_n_notin : forall su n, ~ In n (map fst su) -> sub_n su n = n.
Proof.
  intros su n H; unfold sub_n. destruct (find _ su) as [p|] eqn:E; auto.
  apply find_some in E. destruct E as [E1 E2]. apply N.eqb_eq in E2.
  exfalso; apply H. apply in_map_iff. exists p; auto.
Qed.
Lemma sub_n_range : forall su n, sub_n su n = n \/ In (sub_n su n) (map (fun p => idn (snd p)) su).
Proof.
  intros su n; unfold sub_n. destruct (find _ su) as [p|] eqn:E; auto.
  apply find_some in E. destruct E as [E1 E2]. right. apply in_map_iff. exists p; auto.
Qed.

Lemma sub_s_switch : forall su v t cls,
  sub_s su (Switch v t cls) =
  Switch (sub_id su v) t (map (fun c => (cl_xtor c, cl_ctx c, sub_s su (cl_body c))) cls).
Proof.
  intros; simpl. f_equal. induction cls as [|[[x cc] b] r IH]; simpl; auto.
  unfold cl_xtor, cl_ctx, cl_body; simpl. f_equal; auto.
Qed.
Lemma sub_s_create : forall su v t e cls next,
  sub_s su (Create v t e cls next) =
  Create v t (option_map (map (sub_b su)) e)
         (map (fun c => (cl_xtor c, cl_ctx c, sub_s su (cl_body c))) cls) (sub_s su next).
Proof.
  intros; simpl. f_equal. induction cls as [|[[x cc] b] r IH]; simpl; auto.
  unfold cl_xtor, cl_ctx, cl_body; simpl. f_equal; auto.
Qed.

Lemma cls_sig_map : forall (f : clause -> stmt) cls xs,
  cls_sig (map (fun c => (cl_xtor c, cl_ctx c, f c)) cls) xs = cls_sig cls xs.
Proof.
  induction cls as [|c r IH]; intros [|x xs]; simpl; auto.
  unfold cl_xtor, cl_ctx; simpl. rewrite IH; auto.
Qed.
Lemma cls_ok_map : forall S t (f : clause -> stmt) cls,
  cls_ok S t (map (fun c => (cl_xtor c, cl_ctx c, f c)) cls) = cls_ok S t cls.
Proof. intros; unfold cls_ok. destruct (type_xtors S t); auto. apply cls_sig_map. Qed.

Lemma sig_match_sub : forall su a s, sig_match (map (sub_b su) a) s = sig_match a s.
Proof. induction a as [|x a IH]; intros [|y s]; simpl; auto. rewrite IH; auto. Qed.
Lemma args_ok_sub : forall S t tag su a, args_ok S t tag (map (sub_b su) a) = args_ok S t tag a.
Proof. intros; unfold args_ok. destruct (lookup_xtor S t tag); auto. apply sig_match_sub. Qed.

Lemma has_subst_switch : forall v t cls,
  has_subst (Switch v t cls) = existsb (fun c => has_subst (cl_body c)) cls.
Proof.
  intros; simpl. induction cls as [|[[x cc] b] r IH]; simpl; auto. rewrite IH; auto.
Qed.
Lemma has_subst_create : forall v t e cls next,
  has_subst (Create v t e cls next) = existsb (fun c => has_subst (cl_body c)) cls || has_subst next.
Proof.
  intros; simpl. f_equal. induction cls as [|[[x cc] b] r IH]; simpl; auto. rewrite IH; auto.
Qed.
Lemma binders_cls_sub : forall su cls,
  Forall (fun c => has_subst (cl_body c) = false -> binders (sub_s su (cl_body c)) = binders (cl_body c)) cls ->
  existsb (fun c => has_subst (cl_body c)) cls = false ->
  binders_cls (map (fun c => (cl_xtor c, cl_ctx c, sub_s su (cl_body c))) cls) = binders_cls cls.
Proof.
  induction cls as [|c r IH]; intros HF He; simpl in *; auto.
  inversion HF; subst. apply orb_false_iff in He. destruct He as [He1 He2].
  unfold cl_ctx at 1, cl_body at 1; simpl. rewrite H1, IH; auto.
Qed.
Lemma binders_sub : forall su s, has_subst s = false -> binders (sub_s su s) = binders s.
Proof.
  intros su s; induction s using stmt_ind2; intros Hs.
  - discriminate.
  - reflexivity.
  - simpl in *. rewrite IHs; auto.
  - rewrite sub_s_switch, !binders_switch. rewrite has_subst_switch in Hs. apply binders_cls_sub; auto.
  - rewrite sub_s_create, !binders_create. rewrite has_subst_create in Hs.
    apply orb_false_iff in Hs. destruct Hs as [Hs1 Hs2].
    rewrite IHs, binders_cls_sub; auto.
  - reflexivity.
  - simpl in *. rewrite IHs; auto.
  - simpl in *. rewrite IHs; auto.
  - simpl in *. rewrite IHs; auto.
  - simpl in *. apply orb_false_iff in Hs. destruct Hs. rewrite IHs1, IHs2; auto.
  - reflexivity.
Qed.

Lemma size_cls_sub : forall su cls,
  Forall (fun c => stmt_size (sub_s su (cl_body c)) = stmt_size (cl_body c)) cls ->
  size_cls (map (fun c => (cl_xtor c, cl_ctx c, sub_s su (cl_body c))) cls) = size_cls cls.
Proof.
  induction cls as [|c r IH]; intros HF; simpl; auto. inversion HF; subst.
  change (cl_body (cl_xtor c, cl_ctx c, sub_s su (cl_body c))) with (sub_s su (cl_body c)).
  rewrite H1, IH; auto.
Qed.
Lemma size_sub : forall su s, stmt_size (sub_s su s) = stmt_size s.
Proof.
  intros su s; induction s using stmt_ind2.
  - simpl. rewrite IHs; auto.
  - reflexivity.
  - simpl. rewrite IHs; auto.
  - rewrite sub_s_switch, !size_switch, size_cls_sub; auto.
  - rewrite sub_s_create, !size_create, size_cls_sub, IHs; auto.
  - reflexivity.
  - simpl. rewrite IHs; auto.
  - simpl. rewrite IHs; auto.
  - simpl. rewrite IHs; auto.
  - simpl. rewrite IHs1, IHs2; auto.
  - reflexivity.
Qed.

Lemma ax_check_no_subst : forall S s c, ax_check S c s = true -> has_subst s = false.
Proof.
  intros S s; induction s using stmt_ind2; intros c Hc.
  - discriminate.
  - reflexivity.
  - simpl in *. btrue. eauto.
  - rewrite ax_check_switch in Hc. rewrite has_subst_switch. btrue.
    unfold ax_clauses in H1. rewrite forallb_forall in H1. rewrite Forall_forall in H.
    destruct (existsb (fun c0 => has_subst (cl_body c0)) cls) eqn:E; auto.
    apply existsb_exists in E. destruct E as [cl [E1 E2]].
    rewrite (H cl E1 _ (H1 cl E1)) in E2. discriminate.
  - rewrite ax_check_create in Hc. rewrite has_subst_create. btrue. rewrite (IHs _ H1), orb_false_r.
    unfold ax_clauses in H2. rewrite forallb_forall in H2. rewrite Forall_forall in H.
    destruct (existsb (fun c0 => has_subst (cl_body c0)) cls) eqn:E; auto.
    apply existsb_exists in E. destruct E as [cl [E1 E2]].
    rewrite (H cl E1 _ (H2 cl E1)) in E2. discriminate.
  - reflexivity.
  - simpl in *. eauto.
  - simpl in *. btrue. eauto.
  - simpl in *. btrue. eauto.
  - simpl in *. btrue. rewrite (IHs1 _ H1), (IHs2 _ H0). auto.
  - reflexivity.
Qed.

(* the relation between the context of a statement and the context of its renamed version *)
Definition ren_rel (su : list (N * ident)) (F : list N) (c c' : ctx) : Prop :=
  forall n b, In n F -> lookup_b c n = Some b ->
    exists b', lookup_b c' (sub_n su n) = Some b' /\ bchi b' = bchi b /\ bty b' = bty b.

Lemma ren_has : forall su F c c' x k t,
  ren_rel su F c c' -> In (idn x) F -> has c x k t = true -> has c' (sub_id su x) k t = true.
Proof.
  unfold has; intros su F c c' x k t R Hx H.
  destruct (lookup_b c (idn x)) as [b|] eqn:E; try discriminate.
  destruct (R _ _ Hx E) as [b' [E1 [E2 E3]]].
  rewrite sub_id_n, E1, E2, E3. auto.
Qed.
Lemma ren_has_args : forall su F c c' args,
  ren_rel su F c c' -> (forall b, In b args -> In (idn (bvar b)) F) ->
  forallb (has_b c) args = true -> forallb (has_b c') (map (sub_b su) args) = true.
Proof.
  intros su F c c' args R HF H. rewrite forallb_forall in *. intros b' Hb'.
  apply in_map_iff in Hb'. destruct Hb' as [b [<- Hb]].
  unfold has_b, sub_b; simpl. eapply ren_has; eauto; apply H; auto.
Qed.
Lemma ren_rel_under : forall su F F' bs c c',
  ren_rel su F c c' ->
  (forall x, In x (ids bs) -> ~ In x (map fst su) /\ ~ In x (map (fun p => idn (snd p)) su)) ->
  (forall n, In n F' -> In n (ids bs) \/ In n F) ->
  ren_rel su F' (bs ++ c) (bs ++ c').
Proof.
  unfold ren_rel; intros su F F' bs c c' R Hbs HF n b Hn Hl.
  rewrite lookup_b_app in Hl.
  destruct (lookup_b bs n) as [b0|] eqn:E.
  - inversion Hl; subst b0. assert (Hin : In n (ids bs)).
    { apply lookup_b_Some in E. destruct E as [E1 E2]. subst; apply In_ids; auto. }
    rewrite sub_n_notin by (apply Hbs; auto).
    exists b. rewrite lookup_b_app, E. auto.
  - assert (Hnb : ~ In n (ids bs)) by (apply lookup_b_None; auto).
    destruct (HF _ Hn) as [?|HnF]; [tauto|].
    destruct (R _ _ HnF Hl) as [b' [E1 E2]].
    exists b'. split; auto. rewrite lookup_b_app.
    assert (Hs : lookup_b bs (sub_n su n) = None).
    { apply lookup_b_None. intros Hin. destruct (sub_n_range su n) as [Heq|Hr].
      - rewrite Heq in Hin. tauto.
      - apply Hbs in Hin. tauto. }
    rewrite Hs; auto.
Qed.

Theorem ax_check_rename : forall S su s c c',
  ax_check S c s = true ->
  (forall x, In x (binders s) -> ~ In x (map fst su) /\ ~ In x (map (fun p => idn (snd p)) su)) ->
  ren_rel su (fv s) c c' ->
  ax_check S c' (sub_s su s) = true.
Proof.
  intros S su s; induction s using stmt_ind2; intros c c' Hc Hb R.
  - discriminate.
  - simpl in *. destruct (lookup_label S l); try discriminate. btrue.
    + rewrite sig_match_sub; auto.
    + eapply ren_has_args; eauto. intros b Hb'. apply union_In. left. apply In_ids; auto.
  - simpl in *. btrue.
    + rewrite args_ok_sub; auto.
    + eapply ren_has_args; eauto. intros b Hb'. apply union_In. left. apply In_ids; auto.
    + eapply IHs; [eassumption| |].
      * intros x Hx. apply Hb. auto.
      * apply (ren_rel_under su _ _ [mkb v Prd t] c c' R).
        -- intros x [<-|[]]. apply Hb. simpl; auto.
        -- intros n Hn. simpl. destruct (N.eq_dec (idn v) n); auto.
           right. apply union_In. right. apply remove_In. auto.
  - rewrite sub_s_switch. rewrite ax_check_switch in *. rewrite binders_switch in Hb. btrue.
    + eapply ren_has; eauto. rewrite fv_switch. apply add_In; auto.
    + rewrite cls_ok_map; auto.
    + unfold ax_clauses in *. rewrite forallb_forall in *. intros cl' Hcl'.
      apply in_map_iff in Hcl'. destruct Hcl' as [cl [<- Hcl]].
      change (cl_ctx (cl_xtor cl, cl_ctx cl, sub_s su (cl_body cl))) with (cl_ctx cl).
      change (cl_body (cl_xtor cl, cl_ctx cl, sub_s su (cl_body cl))) with (sub_s su (cl_body cl)).
      rewrite Forall_forall in H. eapply (H cl Hcl (cl_ctx cl ++ c)); [solve [auto]| |].
      * intros x Hx. apply Hb. eapply binders_cls_In; eauto. apply in_or_app; auto.
      * apply (ren_rel_under su _ _ (cl_ctx cl) c c' R).
        -- intros x Hx. apply Hb. eapply binders_cls_In; eauto. apply in_or_app; auto.
        -- intros n Hn. destruct (in_dec N.eq_dec n (ids (cl_ctx cl))); auto.
           right. rewrite fv_switch. apply add_In. right. apply fv_clauses_In. exists cl; auto.
  - rewrite sub_s_create. rewrite ax_check_create in *. rewrite binders_create in Hb. btrue.
    + rewrite cls_ok_map; auto.
    + unfold ax_clauses in *. rewrite forallb_forall in *. intros cl' Hcl'.
      apply in_map_iff in Hcl'. destruct Hcl' as [cl [<- Hcl]].
      change (cl_ctx (cl_xtor cl, cl_ctx cl, sub_s su (cl_body cl))) with (cl_ctx cl).
      change (cl_body (cl_xtor cl, cl_ctx cl, sub_s su (cl_body cl))) with (sub_s su (cl_body cl)).
      rewrite Forall_forall in H. eapply (H cl Hcl (cl_ctx cl ++ c)); [solve [auto]| |].
      * intros x Hx. apply Hb. right. apply in_or_app. left.
        eapply binders_cls_In; eauto. apply in_or_app; auto.
      * apply (ren_rel_under su _ _ (cl_ctx cl) c c' R).
        -- intros x Hx. apply Hb. right. apply in_or_app. left.
           eapply binders_cls_In; eauto. apply in_or_app; auto.
        -- intros n Hn. destruct (in_dec N.eq_dec n (ids (cl_ctx cl))); auto.
           right. rewrite fv_create. apply union_In. left. apply fv_clauses_In. exists cl; auto.
    + eapply IHs; [eassumption| |].
      * intros x Hx. apply Hb. right. apply in_or_app; auto.
      * apply (ren_rel_under su _ _ [mkb v Cns t] c c' R).
        -- intros x [<-|[]]. apply Hb. simpl; auto.
        -- intros n Hn. destruct (N.eq_dec (idn v) n); [left; simpl; auto|].
           right. rewrite fv_create. apply union_In. right. apply remove_In. auto.
  - simpl in *. btrue.
    + eapply ren_has; eauto. apply add_In; auto.
    + rewrite args_ok_sub; auto.
    + eapply ren_has_args; eauto. intros b Hb'. apply add_In. right. apply union_In. left. apply In_ids; auto.
  - simpl in *. eapply IHs; [eassumption| |].
    + intros x Hx. apply Hb. auto.
    + apply (ren_rel_under su _ _ [mkb v Ext I64] c c' R).
      * intros x [<-|[]]. apply Hb. simpl; auto.
      * intros k Hk. simpl. destruct (N.eq_dec (idn v) k); auto.
        right. apply remove_In. auto.
  - simpl in *. btrue.
    + eapply ren_has; eauto. apply add_In. right. apply add_In. auto.
    + eapply ren_has; eauto. apply add_In. auto.
    + eapply IHs; [eassumption| |].
      * intros x Hx. apply Hb. auto.
      * apply (ren_rel_under su _ _ [mkb v Ext I64] c c' R).
        -- intros x [<-|[]]. apply Hb. simpl; auto.
        -- intros n Hn. simpl. destruct (N.eq_dec (idn v) n); auto.
           right. apply add_In. right. apply add_In. right. apply remove_In. auto.
  - simpl in *. btrue.
    + eapply ren_has; eauto. apply add_In. auto.
    + eapply IHs; [eassumption|auto|]. intros n b Hn. apply R. apply add_In; auto.
  - simpl in Hc, Hb. simpl sub_s. simpl ax_check. destruct b as [b|]; simpl in *; btrue.
    + eapply ren_has; eauto. apply add_In. right. apply add_In. auto.
    + eapply ren_has; eauto. apply add_In. auto.
    + eapply IHs1; [eassumption| |].
      * intros x Hx. apply Hb. apply in_or_app; auto.
      * intros n b' Hn. apply R. apply add_In. right. apply add_In. right. apply union_In. auto.
    + eapply IHs2; [eassumption| |].
      * intros x Hx. apply Hb. apply in_or_app; auto.
      * intros n b' Hn. apply R. apply add_In. right. apply add_In. right. apply union_In. auto.
    + eapply ren_has; eauto. apply add_In. auto.
    + auto.
    + eapply IHs1; [eassumption| |].
      * intros x Hx. apply Hb. apply in_or_app; auto.
      * intros n b' Hn. apply R. apply add_In. right. apply union_In. auto.
    + eapply IHs2; [eassumption| |].
      * intros x Hx. apply Hb. apply in_or_app; auto.
      * intros n b' Hn. apply R. apply add_In. right. apply union_In. auto.
  - simpl in *. eapply ren_has; eauto. simpl; auto.
Qed.

Definition src_ok (c : ctx) (p : binding * ident) : Prop :=
  exists b, lookup_b c (idn (snd p)) = Some b /\ bchi b = bchi (fst p) /\ bty b = bty (fst p).
Definition ext_in (c : ctx) (x : ident) : Prop :=
  exists b, lookup_b c (idn x) = Some b /\ bchi b = Ext /\ bty b = I64.
Definition clauses_sig (cls : list clause) (xs : list xtorsig) : Prop :=
  Forall2 (fun cl x => cl_xtor cl = xname x /\ same_kt (cl_ctx cl) (xargs x)) cls xs.

Inductive lin_wt (S : sigs) : ctx -> stmt -> Prop :=
| LW_Substitute : forall c re next,
    NoDup (ids c) -> Forall (src_ok c) re -> lin_wt S (map fst re) next ->
    lin_wt S c (Substitute re next)
| LW_Call : forall c l args ps,
    NoDup (ids c) -> lookup_label S l = Some ps -> same_kt c ps ->
    lin_wt S c (Call l args)
| LW_Let : forall c0 tl v t tag args sg next,
    NoDup (ids (c0 ++ tl)) -> ids tl = ids args -> same_kt tl args ->
    lookup_xtor S t tag = Some sg -> same_kt args sg ->
    lin_wt S (c0 ++ [mkb v Prd t]) next ->
    lin_wt S (c0 ++ tl) (Let v t tag args next)
| LW_Switch : forall c0 b v t cls xs,
    NoDup (ids (c0 ++ [b])) -> idn (bvar b) = idn v -> bchi b = Prd -> bty b = t ->
    type_xtors S t = Some xs -> clauses_sig cls xs ->
    Forall (fun cl => lin_wt S (c0 ++ cl_ctx cl) (cl_body cl)) cls ->
    lin_wt S (c0 ++ [b]) (Switch v t cls)
| LW_Create : forall c0 tl v t env cls xs next,
    NoDup (ids (c0 ++ tl)) -> ids tl = ids env -> same_kt tl env ->
    type_xtors S t = Some xs -> clauses_sig cls xs ->
    Forall (fun cl => lin_wt S (cl_ctx cl ++ env) (cl_body cl)) cls ->
    lin_wt S (c0 ++ [mkb v Cns t]) next ->
    lin_wt S (c0 ++ tl) (Create v t (Some env) cls next)
| LW_Invoke : forall c0 b v tag t args sg,
    NoDup (ids (c0 ++ [b])) -> idn (bvar b) = idn v -> bchi b = Cns -> bty b = t ->
    lookup_xtor S t tag = Some sg -> same_kt c0 sg ->
    lin_wt S (c0 ++ [b]) (Invoke v tag t args)
| LW_Literal : forall c n v next,
    NoDup (ids c) -> lin_wt S (c ++ [mkb v Ext I64]) next -> lin_wt S c (Literal n v next)
| LW_Op : forall c a o b v next,
    NoDup (ids c) -> ext_in c a -> ext_in c b -> lin_wt S (c ++ [mkb v Ext I64]) next ->
    lin_wt S c (Op a o b v next)
| LW_Print : forall c nl v next,
    NoDup (ids c) -> ext_in c v -> lin_wt S c next -> lin_wt S c (PrintI64 nl v next)
| LW_IfC : forall c so a b t e,
    NoDup (ids c) -> ext_in c a -> match b with Some b => ext_in c b | None => True end ->
    lin_wt S c t -> lin_wt S c e -> lin_wt S c (IfC so a b t e)
| LW_Exit : forall c v, NoDup (ids c) -> ext_in c v -> lin_wt S c (Exit v).

Lemma has_Prop : forall c x k t, has c x k t = true ->
  exists b, lookup_b c (idn x) = Some b /\ bchi b = k /\ bty b = t.
Proof.
  unfold has; intros c x k t H. destruct (lookup_b c (idn x)) as [b|]; try discriminate.
  btrue. apply chi_eqb_eq in H. apply ty_eqb_eq in H0. eauto.
Qed.
Lemma ctx_match_Prop : forall a b, ctx_match a b = true -> ids a = ids b /\ same_kt a b.
Proof.
  induction a as [|x a IH]; intros [|y b] H; simpl in *; try discriminate.
  - split; [auto|constructor].
  - btrue. apply N.eqb_eq in H. apply kt_eqb_eq in H1. apply IH in H0. destruct H0.
    split; [congruence|constructor; auto].
Qed.
Lemma cls_sig_Prop : forall cls xs, cls_sig cls xs = true -> clauses_sig cls xs.
Proof.
  induction cls as [|c r IH]; intros [|x xs] H; simpl in *; try discriminate; constructor.
  - btrue. apply ident_eqb_eq in H. apply sig_match_iff in H1. auto.
  - btrue. apply IH; auto.
Qed.

Ltac conv :=
  repeat match goal with
  | H : nodupb _ = true |- _ => apply nodupb_NoDup in H
  | H : N.eqb _ _ = true |- _ => apply N.eqb_eq in H
  | H : chi_eqb _ _ = true |- _ => apply chi_eqb_eq in H
  | H : ty_eqb _ _ = true |- _ => apply ty_eqb_eq in H
  | H : has _ _ _ _ = true |- _ => apply has_Prop in H
  | H : has_ext _ _ = true |- _ => apply has_Prop in H
  | H : ctx_match _ _ = true |- _ => apply ctx_match_Prop in H; destruct H
  | H : sig_match _ _ = true |- _ => apply sig_match_iff in H
  | H : cls_sig _ _ = true |- _ => apply cls_sig_Prop in H
  end.

Theorem lin_check_sound : forall S s c, lin_check S c s = true -> lin_wt S c s.
Proof.
  intros S s; induction s using stmt_ind2; intros c Hc.
  - simpl in Hc. btrue.
    match goal with Hf : forallb _ re = true |- _ => rename Hf into HF end.
    conv. constructor; auto.
    rewrite forallb_forall in HF. apply Forall_forall. intros p Hp. apply HF in Hp.
    apply has_Prop in Hp. exact Hp.
  - simpl in Hc. btrue.
    destruct (lookup_label S l) eqn:E; try discriminate. conv.
    econstructor; eauto.
  - simpl in Hc. btrue.
    destruct (split_lastn (length args) c) as [[c0 tl]|] eqn:E; try discriminate. btrue.
    apply split_lastn_Some in E. destruct E as [E1 E2]. subst c.
    match goal with Ha : args_ok _ _ _ _ = true |- _ => unfold args_ok in Ha;
      destruct (lookup_xtor S t tag) eqn:E; try discriminate end.
    conv. econstructor; eauto.
  - rewrite lin_check_switch in Hc. btrue.
    destruct (split_lastn 1 c) as [[c0 [|b [|]]]|] eqn:E; try discriminate. btrue.
    apply split_lastn_Some in E. destruct E as [E1 E2]. subst c.
    match goal with Ha : cls_ok _ _ _ = true |- _ => unfold cls_ok in Ha;
      destruct (type_xtors S t) eqn:E; try discriminate end.
    match goal with Hl : lin_clauses_sw _ _ _ = true |- _ =>
      unfold lin_clauses_sw in Hl; rewrite forallb_forall in Hl; rename Hl into HL end.
    conv. econstructor; eauto.
    rewrite Forall_forall in *. intros cl Hcl. apply H; auto.
  - destruct env as [env|]; [|simpl in Hc; btrue; discriminate].
    rewrite lin_check_create in Hc. btrue.
    destruct (split_lastn (length env) c) as [[c0 tl]|] eqn:E; try discriminate. btrue.
    apply split_lastn_Some in E. destruct E as [E1 E2]. subst c.
    match goal with Ha : cls_ok _ _ _ = true |- _ => unfold cls_ok in Ha;
      destruct (type_xtors S t) eqn:E; try discriminate end.
    match goal with Hl : lin_clauses_cr _ _ _ = true |- _ =>
      unfold lin_clauses_cr in Hl; rewrite forallb_forall in Hl; rename Hl into HL end.
    conv. econstructor; eauto.
    rewrite Forall_forall in *. intros cl Hcl. apply H; auto.
  - simpl in Hc. btrue.
    destruct (split_lastn 1 c) as [[c0 [|b [|]]]|] eqn:E; try discriminate. btrue.
    apply split_lastn_Some in E. destruct E as [E1 E2]. subst c.
    match goal with Ha : args_ok _ _ _ _ = true |- _ => unfold args_ok in Ha;
      destruct (lookup_xtor S t tag) eqn:E; try discriminate end.
    conv. econstructor; eauto.
  - simpl in Hc. btrue. conv. constructor; auto.
  - simpl in Hc. btrue. conv. constructor; auto.
  - simpl in Hc. btrue. conv. constructor; auto.
  - simpl in Hc. btrue. destruct b; conv; constructor; auto.
  - simpl in Hc. btrue. conv. constructor; auto.
Qed.
