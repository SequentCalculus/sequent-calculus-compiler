(* C06, forward simulation, part 9: the program-level theorem for the closure fragment (integers and closures
   without captured variables). *)
From Coq Require Import List ZArith NArith String Bool Lia FMapPositive.
From SCC Require Import Base.Sexp Lang.AxSyn Sem.AxSem Model.ParMoves Model.Backend Model.X86 Sem.X86Sem Sem.X86Wf
     Model.Linearize Model.LinCheck Generated.Constants Proof.LinBasics
     Proof.X86State Proof.X86Sel Proof.X86Exec Proof.X86ParMoves Proof.SubstGraph Proof.X86Subst
     Proof.X86SimRel Proof.X86SimStmt Proof.X86SimPrint Proof.X86SimAddr Proof.X86SimClo Proof.X86SimProg Proof.X86SimProgC Proof.X86SimTop.
Import ListNotations.
Open Scope Z_scope.
Open Scope list_scope.
(* the definitions of Proof/SimFrag.v under this module's name, for qualified uses *)
Notation entry_int := SimFrag.entry_int (only parsing).


Lemma asm_wf_enc cs : asm_wf cs = None -> forall c, In c cs -> instr_wf c = true.
Proof.
  unfold asm_wf. intros H c Hc.
  destruct (first_dup (defined_labels cs)); [discriminate|].
  destruct (find _ (flat_map referenced cs)); [discriminate|].
  destruct (find _ (calls cs)); [discriminate|].
  destruct (find _ (externs cs)); [discriminate|].
  destruct (find (fun c => negb (instr_wf c)) cs) eqn:F; [discriminate|].
  pose proof (find_none _ _ F c Hc) as N. cbn beta in N. destruct (instr_wf c); [reflexivity|discriminate].
Qed.

Theorem x86_codegen_simulates_cf p lc cs n lc' args fuel o :
  cf_frag p = true -> entry_int p = true -> plain_names p = true -> plain_types p = true -> lin_check_prog p = true ->
  x86_compile p lc = Ok (cs, n, lc') -> asm_wf cs = None -> code_small cs = true ->
  List.length args = n ->
  run_linear fuel p args = o -> snd o <> OOutOfFuel ->
  exists outer inner, fst (run_x86 outer inner cs args) = o.
Proof.
  intros INT EI PL PLTY LIN XC WF SM NARGS <- G.
  destruct (x86_program_entry p lc cs n lc' args PL EI LIN XC WF NARGS)
    as (d0 & rest & e0 & c0 & lc0 & pc0 & s1 & PD & EE & DEFS & CLEAN & C0 & CA & LA & R0 & OK1 & O1 & _ & _ & _ & RUN).
  apply RUN. unfold run_linear in G |- *. rewrite PD, EE in G |- *.
  set (im := mk_image cs) in *.
  assert (LINd : forall d, In d (pdefs p) -> lin_check (sigs_of p) (dctx d) (dbody d) = true).
  { unfold lin_check_prog in LIN. rewrite forallb_forall in LIN. exact LIN. }
  assert (INTd : forall d, In d (pdefs p) -> stmt_cf (dbody d) = true).
  { unfold cf_frag in INT. rewrite forallb_forall in INT. intros d Hd. specialize (INT d Hd). unfold def_cf in INT.
    apply andb_true_iff in INT. tauto. }
  assert (SMALL : forall pc a, PM.find pc (addr_of im) = Some a -> a < 4611686018427387904) by (apply mk_image_small; exact SM).
  assert (ENC : forall pc c, PM.find pc (code im) = Some c -> instr_wf c = true).
  { intros pc c Hc. apply mk_image_code_in in Hc. apply (asm_wf_enc cs WF c Hc). }
  assert (PLT : forall d, In d (ptypes p) -> is_hash_label (label_of_type_name (show_ident (tname d))) = false).
  { unfold plain_types in PLTY. rewrite forallb_forall in PLTY. intros d Hd. specialize (PLTY d Hd).
    destruct (is_hash_label _); [discriminate|reflexivity]. }
  assert (D0 : In d0 (pdefs p)) by (rewrite PD; now left).
  exact (sim_exec_cf im p sp0 (mk_image_ok cs) SMALL ENC PLT DEFS CLEAN LINd INTd fuel _ _ e0 [] s1 _ c0 lc lc0
           (INTd d0 D0) (LINd d0 D0) C0 CA LA (R0 _) OK1 O1 G).
Qed.

(* for runs that end with a result (then the argument count is right) *)
Corollary x86_codegen_correct_cf p lc cs n lc' args fuel o :
  cf_frag p = true -> entry_int p = true -> plain_names p = true -> plain_types p = true -> lin_check_prog p = true ->
  asm_wf cs = None -> code_small cs = true ->
  x86_compile p lc = Ok (cs, n, lc') ->
  run_linear fuel p args = o -> defined o = true ->
  exists outer inner, fst (run_x86 outer inner cs args) = o.
Proof.
  intros CF EI PL PLT LIN WF SM XC <- D.
  assert (G : good (run_linear fuel p args)) by (left; unfold defined in D; destruct (snd _); try discriminate; eauto).
  exact (x86_codegen_simulates_cf p lc cs n lc' args fuel _ CF EI PL PLT LIN XC WF SM
           (good_run_arity p lc cs n lc' args fuel XC G) eq_refl (good_not_oof _ G)).
Qed.
