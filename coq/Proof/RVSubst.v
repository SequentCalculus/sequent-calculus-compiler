(* C11 on RISC-V: the move code of an explicit substitution performs the simultaneous assignment on
   the ISA semantics Sem/RVSem.v (all temporaries are registers; cycles are broken through X1), and a
   whole `Substitute` = reference-count updates (Proof/RVSel.v: rv_share_block_n_refines,
   rv_erase_block_refines) followed by the moves.  Same structure as Proof/X86Subst.v. *)
From Coq Require Import List ZArith NArith String Bool Lia FMapPositive Permutation Sorted.
From SCC Require Import Base.Sexp Lang.AxSyn Sem.AxSem Model.ParMoves Model.Backend Model.RV Sem.RVSem
     Generated.Constants Proof.RVSel Proof.SubstGraph Proof.SubstBackends.
From SCC Require Proof.A64PM.
Import ListNotations.
Local Open Scope list_scope.
Local Open Scope Z_scope.

Definition rv_teqb := teqb rv_backend.
Lemma rv_teqb_spec a b : reflect (a = b) (rv_teqb a b).
Proof.
  unfold rv_teqb, teqb. cbn [b_tcompare rv_backend].
  destruct (N.compare a b) eqn:E; constructor.
  - now apply N.compare_eq_iff.
  - intros ->. rewrite N.compare_refl in E. discriminate.
  - intros ->. rewrite N.compare_refl in E. discriminate.
Qed.

(* a register the moves may name: not x0, not the scratch register X1 *)
Definition rv_operand_ok (t : rtemp) : Prop := t <> ZERO /\ t <> TEMP.

(* straight-line execution of a list of register moves (the step of MV depends on nothing else) *)
Fixpoint run_mvs (cs : list rcode) (s : rstate) : option rstate :=
  match cs with
  | [] => Some s
  | MV x y :: r => run_mvs r (rset s x (rget s y))
  | _ => None
  end.
Lemma run_mvs_app a b s : run_mvs (a ++ b) s = match run_mvs a s with Some s' => run_mvs b s' | None => None end.
Proof. revert s; induction a as [|c a IH]; intros s; cbn [app run_mvs]; [reflexivity|]. destruct c; auto. Qed.
Lemma padd_S i n : padd i (S n) = padd (Pos.succ i) n. Proof. reflexivity. Qed.
Lemma run_mvs_star im cs : forall i s s',
  at_code im i cs -> run_mvs cs s = Some s' -> star im i s (padd i (List.length cs)) s'.
Proof.
  induction cs as [|c cs IH]; intros i s s' AC E.
  - cbn in E. inversion E; subst. apply star_refl.
  - destruct c; cbn [run_mvs] in E; try discriminate.
    destruct (AC 0%nat _ eq_refl) as [Hc [a Ha]]. cbn [padd] in Hc, Ha.
    eapply star_step; [eapply one_next; [exact Hc|exact Ha|apply step_MV]|].
    cbn [List.length]. rewrite padd_S. apply IH; [|exact E].
    intros n c Hn. apply (AC (S n) c Hn).
Qed.

Section Sim.
Definition V := option Z.
Definition abs_state : Type := ((rtemp -> V) * V)%type.
Definition represents_pm (s : rstate) (c : abs_state) : Prop :=
  (forall t, rv_operand_ok t -> rget s t = fst c t) /\ rget s TEMP = snd c.

Lemma sim_pinstr s c i :
  represents_pm s c -> A64PM.pinstr_ok rtemp rv_operand_ok i ->
  exists s', run_mvs (emit_pinstr rv_backend false i) s = Some s' /\ heap s' = heap s /\ hw s' = hw s /\
             represents_pm s' (ParMoves.step rtemp rv_teqb V c i).
Proof.
  intros (R1 & R2) OK.
  destruct i as [d src|t|t]; cbn [A64PM.pinstr_ok] in OK;
    cbn [emit_pinstr b_mov b_store_temporary b_restore_temporary rv_backend r_mov run_mvs ParMoves.step].
  - destruct OK as ((Dz & Dt) & Os).
    eexists. split; [reflexivity|]. split; [apply heap_rset|]. split; [apply rset_spec; exact 0%N|].
    split; cbn [fst snd].
    + intros t Ot. unfold ParMoves.upd. destruct (rv_teqb_spec t d) as [->|NE].
      * rewrite rget_rset_same by exact Dz. apply R1; exact Os.
      * rewrite rget_rset_other by congruence. apply R1; exact Ot.
    + rewrite rget_rset_other by congruence. exact R2.
  - eexists. split; [reflexivity|]. split; [apply heap_rset|]. split; [apply rset_spec; exact 0%N|].
    split; cbn [fst snd].
    + intros u (Uz & Ut). rewrite rget_rset_other by congruence. apply R1. split; assumption.
    + rewrite rget_rset_same by exact TEMP_nz. apply R1; exact OK.
  - destruct OK as (Tz & Tt).
    eexists. split; [reflexivity|]. split; [apply heap_rset|]. split; [apply rset_spec; exact 0%N|].
    split; cbn [fst snd].
    + intros u Ou. unfold ParMoves.upd. destruct (rv_teqb_spec u t) as [->|NE].
      * rewrite rget_rset_same by exact Tz. exact R2.
      * rewrite rget_rset_other by congruence. apply R1; exact Ou.
    + rewrite rget_rset_other by congruence. exact R2.
Qed.

Lemma sim_exec is : forall s c,
  represents_pm s c -> Forall (A64PM.pinstr_ok rtemp rv_operand_ok) is ->
  exists s', run_mvs (flat_map (emit_pinstr rv_backend false) is) s = Some s' /\ heap s' = heap s /\ hw s' = hw s /\
             represents_pm s' (ParMoves.exec rtemp rv_teqb V is c).
Proof.
  induction is as [|i r IH]; intros s c R OK; cbn [flat_map].
  - exists s. cbn. repeat split; auto; apply R.
  - inversion OK as [|? ? Oi Or]; subst.
    destruct (sim_pinstr s c i R Oi) as (s1 & E1 & H1 & W1 & R1).
    destruct (IH s1 _ R1 Or) as (s2 & E2 & H2 & W2 & R2).
    exists s2. rewrite run_mvs_app, E1. split; [exact E2|]. split; [congruence|]. split; [congruence|exact R2].
Qed.
End Sim.

(* explicit substitution on RISC-V: the emitted move code, placed anywhere in a program, is the
   simultaneous assignment; only registers change (the heap and its high-water mark do not) *)
Theorem rv_parallel_moves_ok im i (am : amap rtemp) (code : list rcode) s :
  indeg1 rtemp rv_teqb am -> nodup_targets rtemp rv_teqb am -> A64PM.amap_ok rtemp rv_operand_ok am ->
  parallel_moves_code rv_backend am = Ok code ->
  at_code im i code ->
  exists s', star im i s (padd i (List.length code)) s' /\ heap s' = heap s /\ hw s' = hw s /\
             (forall a b, edge rtemp rv_teqb am a b -> rget s' b = rget s a) /\
             (forall u, rv_operand_ok u -> (forall a, ~ edge rtemp rv_teqb am a u) -> rget s' u = rget s u).
Proof.
  intros ID NT OK E AC. unfold parallel_moves_code in E. fold rv_teqb in E.
  destruct (spanning_forest rtemp rv_teqb (List.length (all_targets rtemp am) + 2) am) as [forest|] eqn:SF; [|discriminate].
  injection E as <-.
  assert (PM : parallel_moves rtemp rv_teqb (List.length (all_targets rtemp am) + 2) am = Some (flat_map (root_moves rtemp) forest))
    by (unfold parallel_moves; now rewrite SF).
  assert (CODE : flat_map (emit_root rv_backend) forest = flat_map (emit_pinstr rv_backend false) (flat_map (root_moves rtemp) forest)).
  { rewrite A64PM.flat_map_flat_map. reflexivity. }
  rewrite CODE in *.
  pose proof (A64PM.parallel_moves_mentions rtemp rv_teqb rv_teqb_spec rv_operand_ok _ am _ OK PM) as MEN.
  destruct (sim_exec _ s (rget s, rget s TEMP) (conj (fun t _ => eq_refl) eq_refl) MEN) as (s' & R & H' & W' & (V1 & _)).
  destruct (parallel_moves_correct rtemp rv_teqb rv_teqb_spec V _ am _ (rget s) (rget s TEMP) ID NT PM) as (C1 & C2).
  exists s'. split; [apply run_mvs_star; assumption|]. split; [exact H'|]. split; [exact W'|]. split.
  - intros a b Eab. rewrite <- (C1 a b Eab). apply V1.
    destruct Eab as (ts & L & I). destruct (A64PM.lookup_in rtemp rv_teqb rv_teqb_spec am a ts L) as (k & -> & Iam).
    destruct (OK _ _ Iam) as (_ & Fts). rewrite Forall_forall in Fts. auto.
  - intros u Ou NE. rewrite <- (C2 u NE). apply V1; auto.
Qed.

Theorem rv_parallel_moves_total (am : amap rtemp) :
  indeg1 rtemp rv_teqb am -> exists code, parallel_moves_code rv_backend am = Ok code.
Proof.
  intros ID. unfold parallel_moves_code. fold rv_teqb.
  pose proof (parallel_moves_terminates rtemp rv_teqb rv_teqb_spec am ID) as H. unfold parallel_moves in H.
  destruct (spanning_forest rtemp rv_teqb _ am); [eexists; reflexivity|]. exfalso. apply H. reflexivity.
Qed.

Notation rtpos := (tpos rv_backend).

Lemma rtpos_ok n i t : rtpos n i = Ok t -> (4 <= t)%N.
Proof.
  unfold tpos. cbn [b_temporary_from_position rv_backend]. unfold temporary_from_position. change RESERVED with 4%N.
  destruct (N.ltb _ _); [|discriminate]. intros E; inversion E; lia.
Qed.
Lemma four_le t : (4 <= t)%N -> t <> ZERO /\ t <> TEMP /\ t <> HEAP /\ t <> FREE.
Proof. apply ge4_regs. Qed.

Definition a_count (p : Z) (k : nat) (h : aheap) : aheap :=
  match k with
  | O => a_erase p h
  | S O => h
  | S (S n) => a_share p (Z.of_nat (S n)) h
  end.

Definition ptr_of (s : rstate) (t : rtemp) : Z := match rget s t with Some p => p | None => 0 end.
Definition rc_temp (o : @rc_op rtemp) : rtemp := match o with RcErase t => t | RcShare t _ => t end.
Definition rc_ok (s0 : rstate) (o : @rc_op rtemp) : Prop :=
  (4 <= rc_temp o)%N /\
  (exists p, rget s0 (rc_temp o) = Some p /\ (p = 0 \/ valid_addr p)) /\
  match o with RcShare _ n => fits12 (Z.of_N n) = true | RcErase _ => True end.
Definition rc_a (s0 : rstate) (o : @rc_op rtemp) (h : aheap) : aheap :=
  match o with
  | RcErase t => a_erase (ptr_of s0 t) h
  | RcShare t n => a_share (ptr_of s0 t) (Z.of_N n) h
  end.

Lemma rv_emit_rc_ok im s0 : forall ops i lc s h,
  Forall (rc_ok s0) ops ->
  (forall r, r <> TEMP -> r <> FREE -> rget s r = rget s0 r) ->
  placed im i (fst (emit_rc rv_backend ops lc)) ->
  represents s h ->
  exists s', star im i s (padd i (List.length (fst (emit_rc rv_backend ops lc)))) s' /\
    represents s' (fold_left (fun h o => rc_a s0 o h) ops h) /\
    (forall r, r <> TEMP -> r <> FREE -> rget s' r = rget s0 r).
Proof.
  induction ops as [|o ops IH]; intros i lc s h OK R PL RP.
  - exists s. cbn. repeat split; auto; try apply RP. apply star_refl.
  - inversion OK as [|? ? Oo Or]; subst.
    cbn [emit_rc] in *. destruct (emit_rc_op rv_backend o lc) as [c1 lc1] eqn:E1.
    destruct (emit_rc rv_backend ops lc1) as [c2 lc2] eqn:E2. cbn [fst] in *.
    apply placed_app in PL as [PL1 PL2].
    destruct Oo as (T4 & (p & Hp & Vp) & Ho). destruct (four_le _ T4) as (N0 & N1 & N2 & N3).
    assert (Hp' : rget s (rc_temp o) = Some p) by (rewrite R by assumption; exact Hp).
    assert (PO : ptr_of s0 (rc_temp o) = p) by (unfold ptr_of; now rewrite Hp).
    assert (STEP : exists s1, star im i s (padd i (List.length c1)) s1 /\ represents s1 (rc_a s0 o h) /\
                              (forall r, r <> TEMP -> r <> FREE -> rget s1 r = rget s r)).
    { destruct o as [t|t n]; cbn [emit_rc_op b_erase b_share_n rv_backend rc_temp rc_a] in *.
      - replace c1 with (fst (r_erase_block t lc)) in * by (now rewrite E1).
        destruct (rv_erase_block_refines im i t lc s h p PL1 N0 N1 N2 N3 RP Hp' Vp) as (s1 & X1 & X2 & X3).
        exists s1. rewrite PO. auto.
      - replace c1 with (fst (r_share_block_n t n lc)) in * by (now rewrite E1).
        destruct (rv_share_block_n_refines im i t n lc s h p PL1 N0 N1 N2 N3 RP Hp' Vp Ho) as (s1 & X1 & X2 & X3).
        exists s1. rewrite PO. split; [exact X1|]. split; [exact X2|]. intros r A _. apply X3; exact A. }
    destruct STEP as (s1 & X1 & X2 & X3).
    destruct (IH (padd i (List.length c1)) lc1 s1 (rc_a s0 o h) Or) as (s2 & Y1 & Y2 & Y3).
    { intros r A B. rewrite X3; auto. }
    { now rewrite E2. }
    { exact X2. }
    rewrite E2 in *. cbn [fst] in *.
    exists s2. split; [|split; [exact Y2|exact Y3]].
    rewrite app_length, padd_add. eapply star_trans; eauto.
Qed.

(* what holds of the operations of every object variable holds of the whole reference-count phase *)
Lemma rc_ops_Forall (P : @rc_op rtemp -> Prop) re (order : list (nat * binding)) ops :
  Forall2 (fun ib o => exists t, rtpos Fst (fst ib) = Ok t /\ o = rc_op_for t (count_targets re (snd ib))) order ops ->
  (forall i b t, In (i, b) order -> rtpos Fst i = Ok t -> Forall P (rc_op_for t (count_targets re b))) ->
  Forall P (List.concat ops).
Proof.
  intros F2 H. apply Forall_concat. induction F2 as [|[i b] o order' ops' (t & Ht & ->) _ IH]; constructor.
  - apply (H i b t); [now left|exact Ht].
  - apply IH. intros i' b' t' Hin. apply H. now right.
Qed.
Lemma rc_op_for_ok s t k p :
  (4 <= t)%N -> rget s t = Some p -> (p = 0 \/ valid_addr p) -> (k <= 2048)%nat -> Forall (rc_ok s) (rc_op_for t k).
Proof.
  intros T4 Hp Vp LE. assert (B : exists q, rget s t = Some q /\ (q = 0 \/ valid_addr q)) by eauto.
  destruct k as [|[|m]]; cbn [rc_op_for]; [constructor; [|constructor] | constructor | constructor; [|constructor]].
  - exact (conj T4 (conj B I)).
  - refine (conj T4 (conj B _)). unfold fits12. apply andb_true_iff. split; apply Z.leb_le; lia.
Qed.

Lemma count_targets_le re b : (count_targets re b <= List.length re)%nat.
Proof. unfold count_targets. induction re as [|x re IH]; cbn; [lia|]. destruct (N.eqb _ _); cbn; lia. Qed.

Lemma lookup_of_In (am : amap rtemp) k ts :
  NoDup (map fst am) -> In (k, ts) am -> lookup rtemp rv_teqb am k = Some ts.
Proof.
  induction am as [|[k1 t1] am IH]; cbn; intros ND Hin; [destruct Hin|].
  inversion ND as [|? ? Hn ND']; subst. destruct Hin as [E|Hin].
  - inversion E; subst. destruct (rv_teqb_spec k k); congruence.
  - destruct (rv_teqb_spec k k1) as [->|N]; [|auto]. exfalso. apply Hn. apply in_map_iff. exists (k1, ts); auto.
Qed.

(* the move graph of a substitution: every target is written once, and only registers of positions occur *)
Lemma connections_moves_ok ctx re am :
  NoDup (ids ctx) -> NoDup (new_ids re) ->
  connections rv_backend (transpose re ctx) ctx (map fst re) = Ok am ->
  indeg1 rtemp rv_teqb am /\ nodup_targets rtemp rv_teqb am /\ A64PM.amap_ok rtemp rv_operand_ok am.
Proof.
  intros NDc NDn CN.
  destruct (transpose_connections_indeg1 rv_backend rv_backend_ok ctx re am NDc NDn CN) as (ID & NT & SRT & KEYS).
  pose proof (connections_edges rv_backend rv_backend_ok ctx re am NDc NDn CN) as EDG.
  assert (NDK : NoDup (map fst am)).
  { apply (sorted_nodup N.compare (cmp_eq rv_backend rv_backend_ok)). exact SRT. }
  assert (VTam : forall t, In t (map fst am) \/ In t (all_targets rtemp am) -> rv_operand_ok t).
  { intros t Ht. assert (T4 : (4 <= t)%N); [|destruct (four_le t T4) as (A & B & _); split; assumption].
    destruct Ht as [Hk|Ht].
    - destruct (KEYS t Hk) as (k & bk & n & _ & _ & Hp). apply (rtpos_ok n k t Hp).
    - unfold all_targets in Ht. apply in_flat_map in Ht as ([k ts] & Hin & Ht). cbn [snd] in Ht.
      assert (edge rtemp rv_teqb am k t) as E.
      { exists ts. split; [|exact Ht]. apply lookup_of_In; auto. }
      apply EDG in E as (k' & j & bk & pj & n & _ & _ & _ & _ & _ & Hb). apply (rtpos_ok n j t Hb). }
  split; [exact ID|]. split; [exact NT|].
  intros k ts Hin. split.
  - apply VTam. left. apply in_map_iff. exists (k, ts). auto.
  - apply Forall_forall. intros t Ht. apply VTam. right. unfold all_targets. apply in_flat_map. exists (k, ts). auto.
Qed.

Theorem rv_substitute_ok im i types ctx re l args lc code lc' s h :
  NoDup (ids ctx) -> NoDup (new_ids re) ->
  Z.of_nat (List.length re) <= 2048 ->
  code_statement rv_backend types (Substitute re (Call l args)) ctx lc = Ok (code, lc') ->
  placed im i code ->
  represents s h ->
  (* every object variable holds a null pointer or a pointer to a heap block *)
  (forall k b t, nth_error ctx k = Some b -> is_obj b = true -> rtpos Fst k = Ok t ->
     exists p, rget s t = Some p /\ (p = 0 \/ valid_addr p)) ->
  exists (s' : rstate) (order : list (nat * binding)) (ptr : nat -> Z),
    (* control arrives at the final jump to the callee *)
    star im i s (padd i (List.length code - 1)) s' /\
    nth_error code (List.length code - 1) = Some (JAL ZERO (show_ident l +++ "_")) /\
    (* ONE simultaneous assignment: new variable j gets what its source k held *)
    (forall k j bk pj n a b, nth_error ctx k = Some bk -> nth_error re j = Some pj -> idn (snd pj) = idn (bvar bk) ->
       (n = Snd \/ bchi bk <> Ext) -> rtpos n k = Ok a -> rtpos n j = Ok b -> rget s' b = rget s a) /\
    (* reference counts: every object variable exactly once, k targets: erase / nothing / share (k-1) *)
    Permutation (map snd order) (filter is_obj ctx) /\
    (forall k b, In (k, b) order -> nth_error ctx k = Some b /\ exists t, rtpos Fst k = Ok t /\ rget s t = Some (ptr k)) /\
    represents s' (fold_left (fun h kb => a_count (ptr (fst kb)) (count_targets re (snd kb)) h) order h) /\
    (* nothing else: every register but X1 (scratch), FREE and the new variables' registers *)
    (forall u, u <> TEMP -> u <> FREE -> (forall j n, rtpos n j = Ok u -> (List.length re <= j)%nat) -> rget s' u = rget s u).
Proof.
  intros NDc NDn LEN CS PL RP PTR.
  cbn [code_statement] in CS.
  destruct (code_weakening_contraction rv_backend (transpose re ctx) ctx lc) as [[c1 lc1]|e] eqn:WC; [|discriminate].
  cbn [rbind] in CS. unfold code_exchange in CS.
  destruct (connections rv_backend (transpose re ctx) ctx (map fst re)) as [am|e] eqn:CN; [|discriminate].
  cbn [rbind] in CS. destruct (parallel_moves_code rv_backend am) as [c2|e] eqn:PMC; [|discriminate].
  cbn [rbind] in CS. inversion CS; subst code lc'; clear CS.
  cbn [b_jump_label b_mark rv_backend app fst snd] in *. unfold r_jump_label in *.
  set (jmp := JAL ZERO (show_ident l +++ "_")) in *.
  apply placed_app in PL as [PL1 PL23]. apply placed_app in PL23 as [[CA2 _] _].
  (* phase 1: reference counts *)
  destruct (weakening_contraction_counts rv_backend ctx re lc c1 lc1 NDc WC) as (order & PERM & _ & ORD & ops & F2 & EM).
  set (ptr := fun k : nat => match rtpos Fst k with Ok t => ptr_of s t | Err _ => 0 end).
  assert (OBJ : forall k b, In (k, b) order -> is_obj b = true).
  { intros k b Hin. assert (In b (map snd order)) as Hb by (apply in_map_iff; exists (k, b); auto).
    eapply Permutation_in in Hb; [|exact PERM]. apply filter_In in Hb. tauto. }
  assert (RCOK : Forall (rc_ok s) (List.concat ops)).
  { apply (rc_ops_Forall _ re order ops F2). intros k b t Hin Ht.
    destruct (PTR k b t (ORD k b Hin) (OBJ k b Hin) Ht) as (p & Hp & Vp).
    apply (rc_op_for_ok s t _ p (rtpos_ok Fst k t Ht) Hp Vp). pose proof (count_targets_le re b). lia. }
  assert (EMc : c1 = fst (emit_rc rv_backend (List.concat ops) lc)) by (now rewrite <- EM).
  rewrite EMc in PL1.
  destruct (rv_emit_rc_ok im s (List.concat ops) i lc s h RCOK (fun r _ _ => eq_refl) PL1 RP) as (s1 & X1 & X2 & X4).
  rewrite <- EMc in X1.
  (* phase 2: the parallel moves *)
  destruct (connections_moves_ok ctx re am NDc NDn CN) as (ID & NT & AMOK).
  pose proof (connections_edges rv_backend rv_backend_ok ctx re am NDc NDn CN) as EDG.
  destruct (rv_parallel_moves_ok im (padd i (List.length c1)) am c2 s1 ID NT AMOK PMC CA2) as (s2 & E2 & H2 & W2 & P1 & P2).
  exists s2, order, ptr.
  assert (LENc : (List.length (c1 ++ c2 ++ [jmp]) - 1 = List.length c1 + List.length c2)%nat).
  { rewrite !app_length. cbn [List.length]. lia. }
  assert (NOEDGE : forall u, (forall j n, rtpos n j = Ok u -> False) -> forall a, ~ edge rtemp rv_teqb am a u).
  { intros u NO a E. apply EDG in E as (k & j & bk & pj & n & _ & _ & _ & _ & _ & Hb). eapply NO; eauto. }
  assert (OKu : forall u, (2 <= u)%N -> rv_operand_ok u).
  { intros u Hu. change ZERO with 0%N. change TEMP with 1%N. unfold rv_operand_ok. change ZERO with 0%N. change TEMP with 1%N. lia. }
  assert (KEEP : forall u, (u = HEAP \/ u = FREE) -> rget s2 u = rget s1 u).
  { intros u Hu. apply P2; [apply OKu; change HEAP with 2%N in Hu; change FREE with 3%N in Hu; lia|].
    apply NOEDGE. intros j n Hb. apply rtpos_ok in Hb. change HEAP with 2%N in Hu; change FREE with 3%N in Hu. lia. }
  split; [|split; [|split; [|split; [|split; [|split]]]]].
  - rewrite LENc, padd_add. eapply star_trans; eauto.
  - rewrite LENc. rewrite nth_error_app2 by lia. rewrite nth_error_app2 by lia.
    replace (List.length c1 + List.length c2 - List.length c1 - List.length c2)%nat with 0%nat by lia. reflexivity.
  - intros k j bk pj n a b Hk Hj Hid Hn Ha Hb.
    assert (edge rtemp rv_teqb am a b) as E by (apply EDG; exists k, j, bk, pj, n; auto 10).
    rewrite (P1 a b E). destruct (four_le a (rtpos_ok n k a Ha)) as (_ & A1 & _ & A3). apply X4; assumption.
  - exact PERM.
  - intros k b Hin. split; [apply ORD; exact Hin|].
    assert (exists t, rtpos Fst k = Ok t) as (t & Ht).
    { clear -F2 Hin. induction F2 as [|x o order' ops' (t & Ht & _) _ IHF]; [destruct Hin|].
      destruct Hin as [->|Hin]; [exists t; exact Ht|auto]. }
    exists t. split; [exact Ht|]. destruct (PTR k b t (ORD k b Hin) (OBJ k b Hin) Ht) as (p & Hp & _).
    unfold ptr, ptr_of. rewrite Ht, Hp. reflexivity.
  - (* the abstract heap: the moves change no heap word, HEAP or FREE *)
    assert (FOLD : fold_left (fun h o => rc_a s o h) (List.concat ops) h =
                   fold_left (fun h kb => a_count (ptr (fst kb)) (count_targets re (snd kb)) h) order h).
    { clear -F2. generalize h. induction F2 as [|[k b] o order' ops' (t & Ht & ->) _ IHF]; intros h0; [reflexivity|].
      cbn [List.concat fold_left fst snd]. rewrite fold_left_app, <- IHF. f_equal.
      cbn [fst] in Ht. unfold ptr. rewrite Ht. destruct (count_targets re b) as [|[|m]]; cbn [rc_op_for fold_left rc_a a_count]; auto. }
    rewrite <- FOLD. destruct X2 as (Hw & Hhp & Hfp). split; [|split].
    + intros a. unfold hword. rewrite H2. apply Hw.
    + rewrite KEEP by auto. exact Hhp.
    + rewrite KEEP by auto. exact Hfp.
  - intros u NT1 NF NEW. destruct (N.eq_dec u 0) as [->|NZ]; [reflexivity|].
    rewrite <- (X4 u NT1 NF). apply P2; [split; [exact NZ|exact NT1]|].
    intros a E. apply EDG in E as (k & j & bk & pj & n & _ & Hj & _ & _ & _ & Hb).
    specialize (NEW j n Hb). assert (j < List.length re)%nat by (apply nth_error_Some; congruence). lia.
Qed.

(* the hypotheses of rv_substitute_ok are satisfiable (same substitution as for AArch64) *)
Definition ex_T : ty := Decl ("T"%string, 0%N).
Definition ex_ctx : ctx := [mkb ("a"%string, 1%N) Prd ex_T; mkb ("b"%string, 2%N) Ext I64; mkb ("c"%string, 3%N) Prd ex_T].
Definition ex_re : list (binding * ident) :=
  [(mkb ("b"%string, 4%N) Ext I64, ("b"%string, 2%N)); (mkb ("a"%string, 5%N) Prd ex_T, ("a"%string, 1%N));
   (mkb ("a"%string, 6%N) Prd ex_T, ("a"%string, 1%N))].
Definition ex_code : list rcode :=
  match code_statement rv_backend [] (Substitute ex_re (Call ("f"%string, 0%N) [])) ex_ctx 0 with Ok (c, _) => c | Err _ => [] end.
Definition ex_state : rstate :=
  {| regs := PM.add (N.succ_pos 4) (HEAP_BASE + 64) (PM.add (N.succ_pos 8) 0
               (PM.add (N.succ_pos 2) (HEAP_BASE + 192) (PM.add (N.succ_pos 3) (HEAP_BASE + 128) (PM.empty Z))));
     heap := PM.empty Z; hw := HEAP_BASE - 8 |}.
Definition ex_heap : aheap := {| words := fun _ => 0; hp := HEAP_BASE + 192; fp := HEAP_BASE + 128 |}.
Example rv_substitute_hyps_satisfiable :
  NoDup (ids ex_ctx) /\ NoDup (new_ids ex_re) /\ Z.of_nat (List.length ex_re) <= 2048 /\
  code_statement rv_backend [] (Substitute ex_re (Call ("f"%string, 0%N) [])) ex_ctx 0 = Ok (ex_code, 4%N) /\
  List.length ex_code = 23%nat /\
  placed (mk_image ([] ++ ex_code ++ [])) 1 ex_code /\
  represents ex_state ex_heap /\
  (forall k b t, nth_error ex_ctx k = Some b -> is_obj b = true -> rtpos Fst k = Ok t ->
     exists p, rget ex_state t = Some p /\ (p = 0 \/ valid_addr p)).
Proof.
  split; [vm_compute; repeat constructor; cbn; intuition discriminate|].
  split; [vm_compute; repeat constructor; cbn; intuition discriminate|].
  split; [vm_compute; discriminate|].
  split; [vm_compute; reflexivity|]. split; [vm_compute; reflexivity|].
  split; [apply (placed_mk_image [] ex_code []); vm_compute; repeat constructor; cbn; intuition discriminate|].
  split; [split; [intros a; unfold hword, ex_state; cbn [heap]; rewrite PM.gempty; reflexivity|split; reflexivity]|].
  intros k b t Hk Ho Ht. destruct k as [|[|[|k]]]; cbn in Hk; try (destruct k; discriminate); inversion Hk; subst; try discriminate.
  - vm_compute in Ht. inversion Ht; subst t. exists (HEAP_BASE + 64). split; [reflexivity|]. right. split; reflexivity.
  - vm_compute in Ht. inversion Ht; subst t. exists 0. split; [reflexivity|]. left; reflexivity.
Qed.
