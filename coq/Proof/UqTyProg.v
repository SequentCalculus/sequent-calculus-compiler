(* `uniquify` preserves typing (C12): the renaming produced by the loop over a
   context ([uqc_ren]) and the induction on the fuel of the model ([ut_all]).  Definitions and programs,
     wt_core c = true -> ids of c <= max_id -> uniquify_prog c = Ok c1 -> wt_core c1 = true,
   are [uniquify_preserves_typing] in Proof/UqTyTop.v. *)
From Coq Require Import List ZArith NArith String Bool Lia.
From SCC Require Import Base.Sexp Lang.SynUtil Lang.CoreSyn Sem.FsCheck Sem.CoreCheck
     Model.Backend Model.Uniquify Model.FocusCheck
     Proof.CoreInd Proof.SubstProof Proof.CheckLemmas Proof.UniquifyProof Proof.FocusKont Proof.UqSubst Proof.UqAeq Proof.UqProof
     Proof.CoreTyRules Proof.UqTy.
Import ListNotations.
Open Scope list_scope.
Open Scope N_scope.

Lemma mem_le_cids_in : forall m G b, mem_le m (cids G) -> In b G -> cid_id (cbvar b) <= m.
Proof. intros m G b H Hb. apply H. unfold cids. apply (in_map (fun b => cid_id (cbvar b))). exact Hb. Qed.
Lemma clookup_le : forall m G x b, mem_le m (cids G) -> clookup G x = Some b -> cid_id x <= m.
Proof. intros m G x b H Hl. rewrite <- (clookup_var _ _ _ Hl). eapply mem_le_cids_in; [exact H | eapply clookup_In; exact Hl]. Qed.

(* The loop over a context ctx, below a scope G0, at counter m.  The conjuncts, in the order in which the users
   name them (L, CL, ML, ND, TV, TC, KY, NEWB, Hro): the counter grows; ctx' is ctx up to names; its ids are
   <= m1; its names stay distinct; the new names of vs / of cs have ids in (m, m1]; the keys are zero-id
   parameters of ctx; a binding of ctx' is one of ctx or fresh; (vs, cs) renames ctx ++ G0 to ctx' ++ G0. *)
Lemma uqc_ren : forall ctx m ctx' vs cs m1 G0,
  uqc ctx m = (ctx', vs, cs, m1) -> NoDup (cvars ctx) -> mem_le m (cids ctx) -> mem_le m (cids G0) ->
  m <= m1 /\ ctx_like ctx ctx' /\ mem_le m1 (cids ctx') /\ NoDup (cvars ctx') /\
  tgt_in m m1 vs /\ tgt_in m m1 cs /\
  (forall k t, In (k, t) vs \/ In (k, t) cs -> cid_id k = 0 /\ In k (cvars ctx)) /\
  (forall b', In b' ctx' -> In b' ctx \/ m < cid_id (cbvar b')) /\
  ren_ok (ctx ++ G0) (ctx' ++ G0) vs cs.
Proof.
  induction ctx as [|b0 r IH]; intros m ctx' vs cs m1 G0 H Hnd Hm HG; simpl in H.
  - inversion H; subst. split; [lia|]. split; [constructor|]. split; [intros i []|]. split; [constructor|].
    split; [intros k t []|]. split; [intros k t []|]. split; [intros k t [[]|[]]|]. split; [intros b' []|].
    split; [intros k t []|]. split; [intros k t []|]. intros x b Hx. simpl in Hx. unfold rho.
    assert (Hs : sel (cbchi b) [] [] = []) by (destruct (cbchi b); reflexivity). rewrite Hs. simpl.
    rewrite Hx. rewrite <- (clookup_var _ _ _ Hx). destruct b; reflexivity.
  - simpl in Hnd. inversion Hnd as [|? ? Hn0 Hndr]; subst.
    assert (Hmr : mem_le m (cids r)) by (intros i Hi; apply Hm; right; exact Hi).
    assert (Hb0 : cid_id (cbvar b0) <= m) by (apply Hm; left; reflexivity).
    destruct (N.eqb (cid_id (cbvar b0)) 0) eqn:Z.
    + (* renamed *)
      destruct (uqc r (m + 1)) as [[[c0 v0] k0] m0] eqn:U.
      destruct (IH (m + 1) c0 v0 k0 m0 G0 U Hndr) as (L & CL & ML & ND & TV & TC & KY & NEWB & [E1 [E2 HB]]).
      { eapply mem_le_mono; [exact Hmr | lia]. } { eapply mem_le_mono; [exact HG | lia]. }
      set (nv := (cid_name (cbvar b0), m + 1)) in *.
      set (nb := mkcb nv (cbchi b0) (cbty b0)) in *.
      set (e := (cbvar b0, CXVar (cbchi b0) nv (cbty b0))).
      assert (Hshape : ctx' = nb :: c0 /\ m1 = m0 /\
                ((cbchi b0 = CPrd /\ vs = e :: v0 /\ cs = k0) \/ (cbchi b0 = CCns /\ vs = v0 /\ cs = e :: k0))).
      { unfold e, nb, nv. destruct (cbchi b0); inversion H; subst; (split; [reflexivity|]; split; [reflexivity|]); [left | right]; auto. }
      destruct Hshape as [-> [-> Hsh]]. clear H.
      assert (Hnvc0 : ~ In nv (cvars c0)).
      { intros Hin. unfold cvars in Hin. apply in_map_iff in Hin. destruct Hin as [b' [Eb Hb']].
        destruct (NEWB b' Hb') as [Hr|Hgt].
        - pose proof (mem_le_cids_in _ _ _ Hmr Hr) as Hle. rewrite Eb in Hle. simpl in Hle. lia.
        - rewrite Eb in Hgt. simpl in Hgt. lia. }
      assert (Hkey : forall k t, In (k, t) v0 \/ In (k, t) k0 -> k <> cbvar b0).
      { intros k t Hk ->. destruct (KY _ _ Hk) as [_ Hin]. contradiction. }
      assert (Hsel : forall c, sel c vs cs = (if cchi_eqb (cbchi b0) c then [e] else []) ++ sel c v0 k0).
      { intros c. destruct Hsh as [[Hc [-> ->]]|[Hc [-> ->]]]; rewrite Hc; destruct c; reflexivity. }
      split; [lia|]. split; [constructor; [simpl; auto | exact CL]|].
      split; [apply mem_le_cons; split; [simpl; lia | exact ML]|].
      split; [simpl; constructor; assumption|].
      assert (Te : forall c n ty, snd e = CXVar c n ty -> m < cid_id n <= m0).
      { intros c n ty He. unfold e in He. simpl in He. injection He as _ <- _. simpl. lia. }
      split.
      { intros k t Hin c n ty ->. destruct Hsh as [[_ [-> _]]|[_ [-> _]]].
        - destruct Hin as [Hin|Hin]; [apply (Te c n ty); rewrite Hin; reflexivity|].
          destruct (TV _ _ Hin c n ty eq_refl). lia.
        - destruct (TV _ _ Hin c n ty eq_refl). lia. }
      split.
      { intros k t Hin c n ty ->. destruct Hsh as [[_ [_ ->]]|[_ [_ ->]]].
        - destruct (TC _ _ Hin c n ty eq_refl). lia.
        - destruct Hin as [Hin|Hin]; [apply (Te c n ty); rewrite Hin; reflexivity|].
          destruct (TC _ _ Hin c n ty eq_refl). lia. }
      split.
      { intros k t Hin. apply N.eqb_eq in Z.
        assert (Hcase : (k, t) = e \/ In (k, t) v0 \/ In (k, t) k0).
        { destruct Hsh as [[_ [-> ->]]|[_ [-> ->]]]; destruct Hin as [Hin|Hin]; simpl in Hin; intuition. }
        destruct Hcase as [He|Hk]; [injection He as -> _; split; [exact Z | left; reflexivity]|].
        destruct (KY _ _ Hk) as [K1 K2]. split; [exact K1 | right; exact K2]. }
      split.
      { intros b' [<-|Hb']; [right; simpl; lia|]. destruct (NEWB b' Hb') as [Hr|Hgt]; [left; right; exact Hr | right; lia]. }
      (* ren_ok *)
      assert (Hent : forall c s0 s, ent_ok (r ++ G0) c s0 -> (forall k t, In (k, t) s0 -> k <> cbvar b0) ->
                (s = s0 \/ (s = e :: s0 /\ cbchi b0 = c)) -> ent_ok ((b0 :: r) ++ G0) c s).
      { intros c s0 s H0 Hk Hs k t Hin.
        assert (Hcase : (In (k, t) s0) \/ ((k, t) = e /\ cbchi b0 = c)).
        { destruct Hs as [->|[-> Hc]]; [left; exact Hin | destruct Hin as [Hin|Hin]; [right; split; [symmetry; exact Hin | exact Hc] | left; exact Hin]]. }
        destruct Hcase as [Hin0|[He Hc]].
        - destruct (H0 _ _ Hin0) as [n [ty [-> Hl]]]. exists n, ty. split; [reflexivity|].
          simpl. assert (Hne : cident_eqb (cbvar b0) k = false) by (apply cident_eqb_neq; intros Eq; apply (Hk _ _ Hin0); auto).
          rewrite Hne. exact Hl.
        - injection He as -> ->. exists nv, (cbty b0). rewrite Hc. split; [reflexivity|]. simpl. rewrite cident_eqb_refl.
          rewrite <- Hc. destruct b0; reflexivity. }
      split.
      { apply (Hent CPrd v0 vs E1); [intros k t Hin; apply (Hkey k t); left; exact Hin|].
        destruct Hsh as [[Hc [-> _]]|[_ [-> _]]]; [right; auto | left; reflexivity]. }
      split.
      { apply (Hent CCns k0 cs E2); [intros k t Hin; apply (Hkey k t); right; exact Hin|].
        destruct Hsh as [[_ [_ ->]]|[Hc [_ ->]]]; [left; reflexivity | right; auto]. }
      intros x b Hx. simpl in Hx. unfold rho. rewrite Hsel.
      destruct (cident_eqb (cbvar b0) x) eqn:Ex.
      * injection Hx as <-. apply cident_eqb_eq in Ex. subst x. rewrite ceq_chi_refl. simpl. rewrite cident_eqb_refl. simpl.
        rewrite cident_eqb_refl. reflexivity.
      * assert (Hfind : subst_find x ((if cchi_eqb (cbchi b0) (cbchi b) then [e] else []) ++ sel (cbchi b) v0 k0) = subst_find x (sel (cbchi b) v0 k0)).
        { destruct (cchi_eqb (cbchi b0) (cbchi b)); [|reflexivity]. simpl. rewrite Ex. reflexivity. }
        rewrite Hfind. fold (rho v0 k0 (cbchi b) x). simpl.
        assert (Hne : cident_eqb nv (rho v0 k0 (cbchi b) x) = false).
        { apply cident_eqb_neq. intros Eq.
          destruct (rho_target _ _ _ _ _ (cbchi b) x E1 E2 TV TC) as [Hr|Hn]; rewrite <- Eq in *.
          - assert (Hle' : cid_id x <= m).
            { eapply (clookup_le m (r ++ G0)); [|exact Hx]. unfold cids. rewrite map_app. apply mem_le_app. split; assumption. }
            rewrite <- Hr in Hle'. simpl in Hle'. lia.
          - simpl in Hn. lia. }
        rewrite Hne. apply HB. exact Hx.
    + (* kept *)
      destruct (uqc r m) as [[[c0 v0] k0] m0] eqn:U. inversion H; subst. clear H.
      destruct (IH m c0 vs cs m1 G0 U Hndr Hmr HG) as (L & CL & ML & ND & TV & TC & KY & NEWB & [E1 [E2 HB]]).
      apply N.eqb_neq in Z.
      assert (Hb0c0 : ~ In (cbvar b0) (cvars c0)).
      { intros Hin. unfold cvars in Hin. apply in_map_iff in Hin. destruct Hin as [b' [Eb Hb']].
        destruct (NEWB b' Hb') as [Hr|Hgt].
        - apply Hn0. rewrite <- Eb. apply in_map. exact Hr.
        - rewrite Eb in Hgt. lia. }
      assert (Hkey : forall k t, In (k, t) vs \/ In (k, t) cs -> k <> cbvar b0).
      { intros k t Hk ->. destruct (KY _ _ Hk) as [K0 _]. contradiction. }
      split; [lia|]. split; [constructor; [auto | exact CL]|].
      split; [apply mem_le_cons; split; [lia | exact ML]|].
      split; [simpl; constructor; assumption|].
      split; [exact TV|]. split; [exact TC|].
      split; [intros k t Hk; destruct (KY _ _ Hk) as [K1 K2]; split; [exact K1 | right; exact K2]|].
      split; [intros b' [<-|Hb']; [left; left; reflexivity | destruct (NEWB b' Hb'); [left; right; assumption | right; assumption]]|].
      assert (Hent : forall c s, ent_ok (r ++ G0) c s -> (forall k t, In (k, t) s -> k <> cbvar b0) -> ent_ok ((b0 :: r) ++ G0) c s).
      { intros c s H0 Hk k t Hin. destruct (H0 _ _ Hin) as [n [ty [-> Hl]]]. exists n, ty. split; [reflexivity|].
        simpl. assert (Hne : cident_eqb (cbvar b0) k = false) by (apply cident_eqb_neq; intros Eq; apply (Hk _ _ Hin); auto).
        rewrite Hne. exact Hl. }
      split; [apply Hent; [exact E1 | intros k t Hin; apply (Hkey k t); left; exact Hin]|].
      split; [apply Hent; [exact E2 | intros k t Hin; apply (Hkey k t); right; exact Hin]|].
      intros x b Hx. simpl in Hx. simpl.
      destruct (cident_eqb (cbvar b0) x) eqn:Ex.
      * injection Hx as <-. apply cident_eqb_eq in Ex. subst x.
        assert (Hr : rho vs cs (cbchi b0) (cbvar b0) = cbvar b0).
        { unfold rho. assert (Hf : subst_find (cbvar b0) (sel (cbchi b0) vs cs) = None); [|rewrite Hf; reflexivity].
          apply subst_find_none. intros Hin. unfold keys in Hin. apply in_map_iff in Hin. destruct Hin as [[k t] [Ek Hin]].
          simpl in Ek. subst k. apply (Hkey (cbvar b0) t); [|reflexivity]. destruct (cbchi b0); simpl in Hin; auto. }
        rewrite Hr, cident_eqb_refl. destruct b0; reflexivity.
      * assert (Hne : cident_eqb (cbvar b0) (rho vs cs (cbchi b) x) = false).
        { apply cident_eqb_neq. intros Eq.
          destruct (rho_target _ _ _ _ _ (cbchi b) x E1 E2 TV TC) as [Hr|Hn]; rewrite <- Eq in *.
          - subst x. rewrite cident_eqb_refl in Ex. discriminate.
          - lia. }
        rewrite Hne. apply HB. exact Hx.
Qed.

Lemma uqc_nil : forall ctx m ctx' m1, uqc ctx m = (ctx', [], [], m1) -> ctx' = ctx /\ m1 = m.
Proof.
  induction ctx as [|b r IH]; intros m ctx' m1 H; simpl in H; [inversion H; auto|].
  destruct (N.eqb (cid_id (cbvar b)) 0).
  - destruct (uqc r (m + 1)) as [[[c0 v0] k0] m0]. destruct (cbchi b); inversion H.
  - destruct (uqc r m) as [[[c0 v0] k0] m0] eqn:U. inversion H; subst. destruct (IH _ _ _ U) as [-> ->]. auto.
Qed.

Lemma ctx_like_fparams : forall ctx ctx' sig, ctx_like ctx ctx' -> fparams_ok ctx sig = true -> fparams_ok ctx' sig = true.
Proof.
  intros ctx ctx' sig H. revert sig. induction H as [|b b' r r' [H1 H2] Hr IH]; intros sig Hp; [exact Hp|].
  destruct sig as [|s sr]; [discriminate|]. simpl in *. apply andb_true_iff in Hp. destruct Hp as [Hp1 Hp2].
  rewrite (IH _ Hp2), andb_true_r. unfold csame_sig in *. rewrite H1, H2. exact Hp1.
Qed.

Section Ut.
Variables (data codata : list ctydecl) (defs defs1 : list cdef).
Notation ct := (ccheck_term data codata defs).
Notation cs := (ccheck_stmt data codata defs).
Notation ct1 := (ccheck_term data codata defs1).
Notation cs1 := (ccheck_stmt data codata defs1).

(* the uniquified definitions: same names, parameters of the same kinds and types *)
Hypothesis Hdefs : forall f d, find (fun d => cident_eqb (cdname d) f) defs = Some d ->
  exists d1, find (fun d => cident_eqb (cdname d) f) defs1 = Some d1 /\ ctx_like (cdctx d) (cdctx d1).

Lemma args_typed_like : forall G args sig sig', args_typed data codata defs1 G args sig -> ctx_like sig sig' ->
  args_typed data codata defs1 G args sig'.
Proof.
  intros G args sig sig' H. revert sig'. induction H as [|a s ar sr Ha Hr IH]; intros sig' HL; inversion HL as [|? s' ? sr' [H1 H2] HL']; subst; constructor.
  - unfold arg_typed in *. rewrite H1, H2. exact Ha.
  - apply IH. exact HL'.
Qed.

Definition clause_hdr (cl cl' : cclause) : Prop :=
  match cl, cl' with CClause c x ctx _, CClause c' x' ctx' _ => c' = c /\ x' = x /\ ctx_like ctx ctx' /\ NoDup (cvars ctx') end.

Definition UTt (f : nat) : Prop := forall t c Gc ty m t' m',
  uq_term f t m = Ok (t', m') -> ct Gc c ty t = None -> ids_le_term m t = true -> mem_le m (cids Gc) ->
  ct1 Gc c ty t' = None /\ m <= m'.
Definition UTc (f : nat) : Prop := forall cl Gc m cl' m',
  uq_clause f cl m = Ok (cl', m') -> clause_typed data codata defs Gc cl ->
  match cl with CClause _ _ ctx _ => NoDup (cvars ctx) end -> ids_le_clause m cl = true -> mem_le m (cids Gc) ->
  clause_typed data codata defs1 Gc cl' /\ m <= m' /\ clause_hdr cl cl'.
Definition UTs (f : nat) : Prop := forall s Gc m s' m',
  uq_stmt f s m = Ok (s', m') -> cs Gc s = None -> ids_le_stmt m s = true -> mem_le m (cids Gc) ->
  cs1 Gc s' = None /\ m <= m'.

Lemma ut_args : forall f, UTt f -> forall args Gc sig m args' m',
  maprs (uq_arg_with (uq_term f)) args m = Ok (args', m') -> args_typed data codata defs Gc args sig ->
  forallb (ids_le_arg m) args = true -> mem_le m (cids Gc) ->
  args_typed data codata defs1 Gc args' sig /\ m <= m'.
Proof.
  intros f H. induction args as [|a r IH]; intros Gc sig m args' m' Hu Ht Hid HG; simpl in Hu.
  - okinv Hu. inversion Ht; subst. split; [constructor | lia].
  - apply rbind_ok in Hu. destruct Hu as ([a' m1] & Ea & Hu). apply rbind_ok in Hu. destruct Hu as ([r' m2] & Er & Hu). okinv Hu.
    inversion Ht as [|? s ? sr Hs Hrs]; subst. simpl in Hid. apply andb_true_iff in Hid. destruct Hid as [Hi1 Hi2].
    assert (Ha : arg_typed data codata defs1 Gc a' s /\ m <= m1).
    { unfold arg_typed in *. destruct a as [p|p]; simpl in Ea; apply rbind_ok in Ea; destruct Ea as ([p' mp] & Ep & Ea); okinv Ea;
        destruct (cbchi s); try contradiction; eapply H; eauto. }
    destruct Ha as [A1 A2].
    destruct (IH Gc sr m1 r' m' Er Hrs) as [R1 R2].
    { eapply forallb_impl; [|exact Hi2]. intros x _ Hx. eapply ids_le_arg_mono; [|exact Hx]. exact A2. }
    { eapply mem_le_mono; eauto. }
    split; [constructor; assumption | lia].
Qed.

Lemma cclauses_nodup : forall side n cls xs, cclauses_match side n cls xs = None ->
  Forall (fun cl => match cl with CClause _ _ ctx _ => NoDup (cvars ctx) end) cls.
Proof.
  intros side n. induction cls as [|[c x ctx b] cr IH]; intros xs H; [constructor|].
  destruct xs as [|sg xr]; [discriminate|]. cbn [cclauses_match] in H.
  apply seqn in H. destruct H as [_ H]. apply seqn in H. destruct H as [_ H]. apply seqn in H. destruct H as [_ H].
  apply seqn in H. destruct H as [H4 H]. apply fens in H4. apply nodup_by_NoDup in H4.
  constructor; [exact H4 | eapply IH; exact H].
Qed.
Lemma cclauses_match_hdr : forall side n cls cls' xs, Forall2 clause_hdr cls cls' ->
  cclauses_match side n cls xs = None -> cclauses_match side n cls' xs = None.
Proof.
  intros side n cls cls' xs H. revert xs. induction H as [|cl cl' r r' Hh Hr IH]; intros xs Hm; [exact Hm|].
  destruct cl as [c x ctx b], cl' as [c' x' ctx' b']. destruct Hh as [-> [-> [HL HN]]].
  destruct xs as [|sg xr]; [discriminate|]. cbn [cclauses_match] in *.
  apply seqn in Hm. destruct Hm as [H1 Hm]. apply seqn in Hm. destruct Hm as [H2 Hm]. apply seqn in Hm. destruct Hm as [H3 Hm].
  apply seqn in Hm. destruct Hm as [H4 Hm]. apply fens in H3.
  apply seqn. split; [exact H1|]. apply seqn. split; [exact H2|].
  apply seqn. split; [apply fens; eapply ctx_like_fparams; eauto|].
  apply seqn. split; [apply fens; apply nodup_by_NoDup; exact HN|]. apply IH. exact Hm.
Qed.

Lemma ut_clauses : forall f, UTc f -> forall cls Gc m cls' m',
  maprs (uq_clause f) cls m = Ok (cls', m') -> Forall (clause_typed data codata defs Gc) cls ->
  Forall (fun cl => match cl with CClause _ _ ctx _ => NoDup (cvars ctx) end) cls ->
  forallb (ids_le_clause m) cls = true -> mem_le m (cids Gc) ->
  Forall (clause_typed data codata defs1 Gc) cls' /\ m <= m' /\ Forall2 clause_hdr cls cls'.
Proof.
  intros f H. induction cls as [|a r IH]; intros Gc m cls' m' Hu Ht Hn Hid HG; simpl in Hu.
  - okinv Hu. repeat split; try constructor. lia.
  - apply rbind_ok in Hu. destruct Hu as ([a' m1] & Ea & Hu). apply rbind_ok in Hu. destruct Hu as ([r' m2] & Er & Hu). okinv Hu.
    inversion Ht as [|? ? Hs Hrs]; subst. inversion Hn as [|? ? Hn1 Hn2]; subst.
    simpl in Hid. apply andb_true_iff in Hid. destruct Hid as [Hi1 Hi2].
    destruct (H a Gc m a' m1 Ea Hs Hn1 Hi1 HG) as [A1 [A2 A3]].
    destruct (IH Gc m1 r' m' Er Hrs Hn2) as [R1 [R2 R3]].
    { eapply forallb_impl; [|exact Hi2]. intros x _ Hx. eapply ids_le_clause_mono; [|exact Hx]. exact A2. }
    { eapply mem_le_mono; eauto. }
    split; [constructor; assumption|]. split; [lia | constructor; assumption].
Qed.

(* a context with its renaming: the body after the pending substitution is typed under the new context *)
Lemma uq_ctx_body : forall ctx body Gc m ctx' vs cs0 m1 body1,
  uq_context ctx m [] [] [] = (ctx', vs, cs0, m1) ->
  (if is_nil vs && is_nil cs0 then Ok body else subst_stmt body vs cs0) = Ok body1 ->
  cs (ctx ++ Gc) body = None -> NoDup (cvars ctx) ->
  forallb (fun i => N.leb i m) (cids ctx) = true -> ids_le_stmt m body = true -> mem_le m (cids Gc) ->
  cs (ctx' ++ Gc) body1 = None /\ ids_le_stmt m1 body1 = true /\ m <= m1 /\ mem_le m1 (cids ctx') /\
  ctx_like ctx ctx' /\ NoDup (cvars ctx').
Proof.
  intros ctx body Gc m ctx' vs cs0 m1 body1 Hc Hb Ht Hnd Hic Hib HG.
  rewrite uq_context_uqc in Hc.
  assert (Hmc : mem_le m (cids ctx)) by (apply forallb_leb; exact Hic).
  destruct (uqc_ren ctx m ctx' vs cs0 m1 Gc Hc Hnd Hmc HG) as (L & CL & ML & ND & TV & TC & KY & NEWB & Hro).
  destruct (is_nil vs && is_nil cs0) eqn:En.
  - okinv Hb. apply andb_true_iff in En. destruct En as [En1 En2]. destruct vs; [|discriminate]. destruct cs0; [|discriminate].
    destruct (uqc_nil _ _ _ _ Hc) as [-> ->]. repeat split; auto.
  - destruct (rn_stmt data codata defs body vs cs0 (ctx ++ Gc) (ctx' ++ Gc) m m1 Ht Hro TV TC Hib L) as [b' [E1 [B1 B2]]].
    rewrite E1 in Hb. okinv Hb. repeat split; auto.
Qed.

Theorem ut_all : forall f, UTt f /\ UTc f /\ UTs f.
Proof.
  induction f as [|f [IHt [IHc IHs]]].
  - split; [|split]; intros until 1; discriminate.
  - split; [|split].
    + (* terms *)
      intros t c Gc ty m t' m' Hu Ht Hid HG. destruct t as [c0 v ty0 | n | a o b | c0 v s ty0 | c0 x args ty0 | c0 cls ty0]; simpl in Hu.
      * okinv Hu. apply ct_var in Ht. split; [apply ct_var; exact Ht | lia].
      * okinv Hu. apply ct_lit in Ht. split; [apply ct_lit; exact Ht | lia].
      * apply rbind_ok in Hu. destruct Hu as ([a' m1] & Ea & Hu). apply rbind_ok in Hu. destruct Hu as ([b' m2] & Eb & Hu). okinv Hu.
        apply ct_op in Ht. destruct Ht as [-> [-> [Ha Hb]]]. simpl in Hid. apply andb_true_iff in Hid. destruct Hid as [Hi1 Hi2].
        destruct (IHt a CPrd Gc CI64 m a' m1 Ea Ha Hi1 HG) as [A1 A2].
        destruct (IHt b CPrd Gc CI64 m1 b' m' Eb Hb) as [B1 B2].
        { eapply ids_le_term_mono; eauto. } { eapply mem_le_mono; eauto. }
        split; [apply ct_op; auto | lia].
      * apply ct_mu in Ht. destruct Ht as [-> [-> Hs]]. simpl in Hid. apply andb_true_iff in Hid. destruct Hid as [Hiv His].
        apply N.leb_le in Hiv.
        destruct (N.eqb (cid_id v) 0) eqn:Z.
        -- (* renamed binder *)
           unfold fresh_identifier in Hu.
           set (nv := (cid_name v, m + 1)) in *.
           apply rbind_ok in Hu. destruct Hu as (s1 & Es & Hu). apply rbind_ok in Hu. destruct Hu as ([s2 m2] & Eu & Hu). okinv Hu.
           set (vb := mkcb v (opp c) ty) in *. set (nvb := mkcb nv (opp c) ty).
           assert (Hro : forall ps cs0, ((c = CPrd /\ ps = [] /\ cs0 = [(v, CXVar CCns nv ty)]) \/ (c = CCns /\ ps = [(v, CXVar CPrd nv ty)] /\ cs0 = [])) ->
                     ren_ok (vb :: Gc) (nvb :: Gc) ps cs0 /\ tgt_in m (m + 1) ps /\ tgt_in m (m + 1) cs0).
           { (* the one-parameter context [vb] through [uqc_ren] *)
             intros ps cs0 Hsh.
             assert (U : uqc [vb] m = ([nvb], ps, cs0, m + 1)).
             { simpl. rewrite Z. destruct Hsh as [[-> [-> ->]]|[-> [-> ->]]]; reflexivity. }
             destruct (uqc_ren [vb] m [nvb] ps cs0 (m + 1) Gc U) as (_ & _ & _ & _ & TV & TC & _ & _ & R).
             - constructor; [intros [] | constructor].
             - intros i [<-|[]]. exact Hiv.
             - exact HG.
             - auto. }
           assert (Hs1 : cs (nvb :: Gc) s1 = None /\ ids_le_stmt (m + 1) s1 = true).
           { destruct c.
             - destruct (Hro [] [(v, CXVar CCns nv ty)]) as [R1 [R2 R3]]; [left; auto|].
               destruct (rn_stmt data codata defs s [] [(v, CXVar CCns nv ty)] (vb :: Gc) (nvb :: Gc) m (m + 1) Hs R1 R2 R3 His) as [s1' [E1 [S1 S2]]]; [lia|].
               unfold subst_covar_stmt in Es. rewrite E1 in Es. okinv Es. auto.
             - destruct (Hro [(v, CXVar CPrd nv ty)] []) as [R1 [R2 R3]]; [right; auto|].
               destruct (rn_stmt data codata defs s [(v, CXVar CPrd nv ty)] [] (vb :: Gc) (nvb :: Gc) m (m + 1) Hs R1 R2 R3 His) as [s1' [E1 [S1 S2]]]; [lia|].
               unfold subst_var_stmt in Es. rewrite E1 in Es. okinv Es. auto. }
           destruct Hs1 as [S1 S2].
           destruct (IHs s1 (nvb :: Gc) (m + 1) s2 m' Eu S1 S2) as [U1 U2].
           { apply mem_le_cons. split; [simpl; lia | eapply mem_le_mono; [exact HG | lia]]. }
           split; [apply ct_mu; auto | lia].
        -- apply rbind_ok in Hu. destruct Hu as ([s2 m2] & Eu & Hu). okinv Hu.
           destruct (IHs s (mkcb v (opp c) ty :: Gc) m s2 m' Eu Hs His) as [U1 U2].
           { apply mem_le_cons. split; [simpl; lia | exact HG]. }
           split; [apply ct_mu; auto | exact U2].
      * apply rbind_ok in Hu. destruct Hu as ([args' m1] & Ea & Hu). okinv Hu.
        apply ct_xtor in Ht. destruct Ht as [-> [-> [n [d [sg [-> [Hd [Hsg Ha]]]]]]]]. simpl in Hid.
        destruct (ut_args f IHt args Gc _ m args' m' Ea Ha Hid HG) as [A1 A2].
        split; [|exact A2]. apply ct_xtor. repeat split. exists n, d, sg. auto.
      * apply rbind_ok in Hu. destruct Hu as ([cls' m1] & Ec & Hu). okinv Hu.
        apply ct_xcase in Ht. destruct Ht as [-> [-> [n [d [-> [Hd [Hm Hcl]]]]]]]. simpl in Hid.
        destruct (ut_clauses f IHc cls Gc m cls' m' Ec Hcl (cclauses_nodup _ _ _ _ Hm) Hid HG) as [C1 [C2 C3]].
        split; [|exact C2]. apply ct_xcase. repeat split. exists n, d. repeat split; auto. eapply cclauses_match_hdr; eauto.
    + (* clauses *)
      intros [c x ctx body] Gc m cl' m' Hu Ht Hn Hid HG. simpl in Hu. unfold clause_typed in Ht.
      simpl in Hid. apply andb_true_iff in Hid. destruct Hid as [Hic Hib].
      destruct (uq_context ctx m [] [] []) as [[[ctx' vs] cs0] m1] eqn:Ec.
      apply rbind_ok in Hu. destruct Hu as (body1 & Eb & Hu). apply rbind_ok in Hu. destruct Hu as ([body2 m2] & Eu & Hu). okinv Hu.
      destruct (uq_ctx_body ctx body Gc m ctx' vs cs0 m1 body1 Ec Eb Ht Hn Hic Hib HG) as (B1 & B2 & B3 & B4 & B5 & B6).
      destruct (IHs body1 (ctx' ++ Gc) m1 body2 m' Eu B1 B2) as [U1 U2].
      { unfold cids. rewrite map_app. apply mem_le_app. split; [exact B4 | eapply mem_le_mono; eauto]. }
      split; [exact U1|]. split; [lia|]. simpl. auto.
    + (* statements *)
      intros s Gc m s' m' Hu Ht Hid HG. destruct s as [p ty k | so a b t e | nl a next | g args ty | a ty]; simpl in Hu.
      * apply rbind_ok in Hu. destruct Hu as ([p' m1] & Ep & Hu). apply rbind_ok in Hu. destruct Hu as ([k' m2] & Ek & Hu). okinv Hu.
        apply cs_cut in Ht. destruct Ht as [Hty [Hp Hk]]. simpl in Hid. apply andb_true_iff in Hid. destruct Hid as [Hi1 Hi2].
        destruct (IHt p CPrd Gc ty m p' m1 Ep Hp Hi1 HG) as [P1 P2].
        destruct (IHt k CCns Gc ty m1 k' m' Ek Hk) as [K1 K2].
        { eapply ids_le_term_mono; eauto. } { eapply mem_le_mono; eauto. }
        split; [apply cs_cut; auto | lia].
      * apply rbind_ok in Hu. destruct Hu as ([a' m1] & Ea & Hu). apply rbind_ok in Hu. destruct Hu as ([b' m2] & Eb & Hu).
        apply rbind_ok in Hu. destruct Hu as ([t' m3] & Et & Hu). apply rbind_ok in Hu. destruct Hu as ([e' m4] & Ee & Hu). okinv Hu.
        apply cs_ifc in Ht. destruct Ht as [Ha [Hb [Htt Hte]]]. simpl in Hid.
        apply andb_true_iff in Hid. destruct Hid as [Hid Hie]. apply andb_true_iff in Hid. destruct Hid as [Hid Hit].
        apply andb_true_iff in Hid. destruct Hid as [Hia Hib].
        destruct (IHt a CPrd Gc CI64 m a' m1 Ea Ha Hia HG) as [A1 A2].
        assert (HB : match b' with Some b1 => ct1 Gc CPrd CI64 b1 = None | None => True end /\ m1 <= m2).
        { destruct b as [b0|].
          - apply rbind_ok in Eb. destruct Eb as ([b1 mb] & Eb & Eb'). okinv Eb'.
            eapply IHt; eauto; [eapply ids_le_term_mono; eauto | eapply mem_le_mono; eauto].
          - okinv Eb. split; [exact I | lia]. }
        destruct HB as [B1 B2].
        destruct (IHs t Gc m2 t' m3 Et Htt) as [T1 T2].
        { eapply ids_le_stmt_mono; [|exact Hit]. lia. } { eapply mem_le_mono; [exact HG | lia]. }
        destruct (IHs e Gc m3 e' m' Ee Hte) as [E1 E2].
        { eapply ids_le_stmt_mono; [|exact Hie]. lia. } { eapply mem_le_mono; [exact HG | lia]. }
        split; [apply cs_ifc; auto | lia].
      * apply rbind_ok in Hu. destruct Hu as ([a' m1] & Ea & Hu). apply rbind_ok in Hu. destruct Hu as ([n' m2] & En & Hu). okinv Hu.
        apply cs_print in Ht. destruct Ht as [Ha Hn]. simpl in Hid. apply andb_true_iff in Hid. destruct Hid as [Hi1 Hi2].
        destruct (IHt a CPrd Gc CI64 m a' m1 Ea Ha Hi1 HG) as [A1 A2].
        destruct (IHs next Gc m1 n' m' En Hn) as [N1 N2].
        { eapply ids_le_stmt_mono; eauto. } { eapply mem_le_mono; eauto. }
        split; [apply cs_print; auto | lia].
      * apply rbind_ok in Hu. destruct Hu as ([args' m1] & Ea & Hu). okinv Hu.
        apply cs_call in Ht. destruct Ht as [Hty [d [Hd Ha]]]. simpl in Hid.
        destruct (ut_args f IHt args Gc _ m args' m' Ea Ha Hid HG) as [A1 A2].
        destruct (Hdefs g d Hd) as [d1 [Hd1 HL]].
        split; [|exact A2]. apply cs_call. split; [exact Hty|]. exists d1. split; [exact Hd1|].
        eapply args_typed_like; eauto.
      * apply rbind_ok in Hu. destruct Hu as ([a' m1] & Ea & Hu). okinv Hu.
        apply cs_exit in Ht. destruct Ht as [Hty Ha]. simpl in Hid.
        destruct (IHt a CPrd Gc CI64 m a' m' Ea Ha Hid HG) as [A1 A2].
        split; [apply cs_exit; auto | exact A2].
Qed.
End Ut.
