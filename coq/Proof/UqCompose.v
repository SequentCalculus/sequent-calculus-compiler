(* C03: uniquify and focus composed.  The kind-clash hypothesis and the static guard are transported
   from the uniquified program back to the input program (alpha-equivalence keeps both), so that the
   final theorems speak about the program handed to `Prog::focus` only. *)
From Coq Require Import List ZArith NArith String Bool Lia.
From SCC Require Import Base.Sexp Lang.CoreSyn Sem.AxSem Sem.CoreSem Model.Backend Model.Uniquify Model.Focus
     Model.FocusCheck Proof.FocusTheorems Proof.FocusKont Proof.FocusSim Proof.FocusRun Proof.FocusFrag Proof.FocusPres
     Proof.UqAeq Proof.UqSim Proof.UqPres Proof.FocusTyped.
From SCC Require Import Model.FocusGuard.
Import ListNotations.
Open Scope list_scope.

(* the guard is invariant under alpha-equivalence *)
Scheme aeq_t_m := Minimality for aeq_t Sort Prop
  with aeq_a_m := Minimality for aeq_a Sort Prop
  with aeq_as_m := Minimality for aeq_as Sort Prop
  with aeq_c_m := Minimality for aeq_c Sort Prop
  with aeq_cs_m := Minimality for aeq_cs Sort Prop
  with aeq_s_m := Minimality for aeq_s Sort Prop
  with aeq_o_m := Minimality for aeq_o Sort Prop.

Section SgAeq.
Variable cod : cty -> bool.
Variables bn kr : bool.
Notation sgt := (sg_term cod bn kr).
Notation sga := (sg_arg cod bn kr).
Notation sgc := (sg_clause cod bn kr).
Notation sgs := (sg_stmt cod bn kr).
Notation aop := (arg_ok_prd cod bn kr).
Notation aoc := (arg_ok_cns cod bn).

Lemma sg_op : forall a o b, sgt (COp a o b) = sgt a && aop a && (sgt b && aop b).
Proof. reflexivity. Qed.
Lemma sg_prd : forall t, sga (CProducer t) = sgt t && aop t.
Proof. reflexivity. Qed.
Lemma sg_cns : forall t, sga (CConsumer t) = sgt t && aoc t.
Proof. reflexivity. Qed.
Lemma sg_cut : forall p ty k, sgs (CCut p ty k) = sgt p && sgt k && cut_ok bn (cod ty) p.
Proof. reflexivity. Qed.
Lemma sg_ifc : forall so a b t e, sgs (CIfC so a b t e) =
  sgt a && aop a && match b with Some b' => sgt b' && aop b' | None => true end && sgs t && sgs e.
Proof. reflexivity. Qed.
Lemma sg_print : forall nl a n, sgs (CPrint nl a n) = sgt a && aop a && sgs n.
Proof. reflexivity. Qed.
Lemma sg_exit : forall a ty, sgs (CExit a ty) = sgt a && aop a.
Proof. reflexivity. Qed.

(* The guard looks at a term through four functions (sg_term, arg_ok_prd, arg_ok_cns, cut_ok): the motive for
   terms says that alpha-equivalent terms agree on all four, the one for an optional operand what sg_ifc reads
   of it.  Every case is then: unfold the guard by its equation above and compare the conjunctions factor by factor. *)
Lemma aeq_sg_stmt : forall G s s', aeq_s G s s' -> sgs s' = sgs s.
Proof.
  apply (aeq_s_m
           (fun _ t t' => sgt t' = sgt t /\ aop t' = aop t /\ aoc t' = aoc t /\ forall cd, cut_ok bn cd t' = cut_ok bn cd t)
           (fun _ a a' => sga a' = sga a)
           (fun _ l l' => forallb sga l' = forallb sga l)
           (fun _ c c' => sgc c' = sgc c)
           (fun _ l l' => forallb sgc l' = forallb sgc l)
           (fun _ s s' => sgs s' = sgs s)
           (fun _ o o' => match o', o with
                          | Some b', Some b => sgt b' = sgt b /\ aop b' = aop b
                          | None, None => True
                          | _, _ => False
                          end)); intros.
  all: rewrite ?sg_op, ?sg_prd, ?sg_cns, ?sg_cut, ?sg_ifc, ?sg_print, ?sg_exit; simpl.
  all: repeat match goal with H : _ /\ _ |- _ => destruct H end.
  all: try match goal with |- _ /\ _ => repeat split; intros end.
  all: repeat match goal with |- (_ && _) = (_ && _) => apply (f_equal2 andb) end.
  all: auto.
  (* left: IfC, the optional second operand *)
  -
    destruct b, b'; try contradiction; [|reflexivity].
    match goal with H : _ /\ _ |- _ => destruct H end. apply (f_equal2 andb); assumption.
Qed.
End SgAeq.

Lemma sg_defs_rel : forall cod bn kr ds ds1, Forall2 def_rel ds ds1 ->
  forallb (fun d => sg_stmt cod bn kr (cdbody d)) ds1 = forallb (fun d => sg_stmt cod bn kr (cdbody d)) ds.
Proof.
  induction 1 as [|d d1 r r1 (N & CL & A) HR IH]; simpl; [reflexivity|].
  rewrite (aeq_sg_stmt _ _ _ _ _ _ A), IH. reflexivity.
Qed.

Lemma sg_prog_uniquify : forall bn kr p p1, uniquify_prog p = Ok p1 -> focus_wf p = true ->
  forallb (ids_le_def (cpmax p)) (cpdefs p) = true -> cs_prog p = true ->
  sg_prog bn kr p1 = sg_prog bn kr p.
Proof.
  intros bn kr p p1 U W I SC. unfold uniquify_prog in U. apply rbind_ok in U. destruct U as ([ds m] & E & U). okinv U.
  pose proof (uq_defs_aeq _ _ _ _ _ E W I (N.le_refl _) SC) as DR.
  unfold sg_prog. simpl.
  change (is_codata {| cpdefs := ds; cpdata := cpdata p; cpcodata := cpcodata p; cpmax := m |}) with (is_codata p).
  apply sg_defs_rel. exact DR.
Qed.

(* kind clashes are invariant under the lock-step simulation *)
Section ClashU.
Variables p p1 : cprog.
Hypothesis Hcod : forall ty, is_codata p1 ty = is_codata p ty.
Hypothesis Hdefs : forall f,
  match cfind_def p f, cfind_def p1 f with
  | Some d, Some d1 => ctx_like (cdctx d) (cdctx d1) /\ aeq_s (gzip (cdctx d) (cdctx d1)) (cdbody d) (cdbody d1)
  | None, None => True
  | _, _ => False
  end.

Lemma u_clash_val : forall pv pv' kv kv', UV (BP pv) (BP pv') -> UV (BK kv) (BK kv') -> clash_val pv' kv' = clash_val pv kv.
Proof. intros pv pv' kv kv' HP HK. inversion HP; subst; inversion HK; subst; reflexivity. Qed.

Lemma u_clash_cut : forall G cd pr pr' e e' kv kv', aeq_t G pr pr' -> UE G e e' -> UV (BK kv) (BK kv') ->
  clash_cut cd pr' e' kv' = clash_cut cd pr e kv.
Proof.
  intros G cd pr pr' e e' kv kv' A HE HK. inversion A; subst; simpl; auto.
  - pose proof (ue_lookup _ _ _ HE _ _ H) as L.
    destruct (clookup e x) as [v|], (clookup e' x') as [v'|]; try contradiction; auto.
    destruct (UV_kind _ _ L) as [(a & b & -> & ->)|(a & b & -> & ->)]; auto. apply u_clash_val; auto.
  - inversion HK; subst; reflexivity.
Qed.

Lemma u_clash : forall c c', UC c c' -> clash_config p1 c' = clash_config p c.
Proof.
  intros c c' H. inversion H; subst; simpl; auto.
  - inversion H0; subst; auto.
    assert (HD : match khead k' e' with inl kv => clash_cut (is_codata p1 ty) p' e' kv | inr _ => false end =
                 match khead k e with inl kv => clash_cut (is_codata p ty) p0 e kv | inr _ => false end).
    { pose proof (u_khead _ _ _ _ _ H3 H1) as KH. rewrite Hcod.
      destruct (khead k e), (khead k' e'); try contradiction; auto. eapply u_clash_cut; eauto. }
    inversion H2; subst; auto; inversion H3; subst; auto.
  - inversion H0; subst; auto.
    + destruct (UV_kind _ _ H1) as [(a & b & -> & ->)|(a & b & -> & ->)]; auto.
      pose proof (u_khead _ _ _ _ _ H2 H3) as KH.
      destruct (khead k e), (khead k' e'); try contradiction; auto. apply u_clash_val; auto.
    + destruct (UV_kind _ _ H1) as [(a & b & -> & ->)|(a & b & -> & ->)]; auto.
      eapply u_clash_cut; eauto.
Qed.

Lemma u_clash_free : forall fuel c c', UC c c' -> clash_free p1 fuel c' = clash_free p fuel c.
Proof.
  induction fuel as [|f IH]; intros c c' H; simpl; [reflexivity|].
  rewrite (u_clash _ _ H). f_equal.
  pose proof (u_step p p1 Hcod Hdefs c c' H) as S.
  destruct (cstep p c), (cstep p1 c'); simpl in S; try contradiction; auto.
  destruct S as (_ & _ & S). auto.
Qed.
End ClashU.

Lemma clash_free_prog_uniquify : forall p p1 fuel args, uniquify_prog p = Ok p1 -> focus_wf p = true ->
  forallb (ids_le_def (cpmax p)) (cpdefs p) = true -> cs_prog p = true ->
  clash_free_prog fuel p1 args = clash_free_prog fuel p args.
Proof.
  intros p p1 fuel args U W I SC. unfold uniquify_prog in U. apply rbind_ok in U. destruct U as ([ds m] & E & U). okinv U.
  pose proof (uq_defs_aeq _ _ _ _ _ E W I (N.le_refl _) SC) as DR.
  set (p1 := mkcp ds (cpdata p) (cpcodata p) m).
  assert (Hcod : forall ty, is_codata p1 ty = is_codata p ty) by reflexivity.
  assert (Hdefs : forall f,
            match cfind_def p f, cfind_def p1 f with
            | Some d, Some d1 => ctx_like (cdctx d) (cdctx d1) /\ aeq_s (gzip (cdctx d) (cdctx d1)) (cdbody d) (cdbody d1)
            | None, None => True
            | _, _ => False
            end).
  { intros f. unfold cfind_def. simpl. apply defs_find. exact DR. }
  unfold clash_free_prog. simpl.
  destruct DR as [|d d1 r r1 (N & CL & A) HR]; [reflexivity|].
  unfold centry_env. rewrite (ctx_like_chi _ _ CL).
  destruct (forallb (fun b => match cbchi b with CPrd => true | CCns => false end) (cdctx d)); [|reflexivity].
  pose proof (u_cbind _ _ _ _ _ _ _ CL (UVs_ints args) UE_nil) as B. rewrite app_nil_r in B.
  destruct (cbind (cvars (cdctx d)) (map (fun z => BP (PInt z)) args) []),
           (cbind (cvars (cdctx d1)) (map (fun z => BP (PInt z)) args) []); try contradiction; [|reflexivity].
  apply (u_clash_free p p1 Hcod Hdefs). econstructor; eauto.
Qed.

(* Prog::focus preserves behaviour *)
Theorem uniquify_focus_preserves : forall p q args fuel,
  pre_check p = true -> focus_wf p = true -> cs_prog p = true -> focus_prog p = Ok q ->
  clash_free_prog fuel p args = true -> good_end (snd (run_core fuel p args)) ->
  exists fuel', run_fs fuel' q args = run_core fuel p args.
Proof.
  intros p q args fuel P W SC F CF G.
  destruct (uniquify_unique_thm p P W) as (p1 & U & _).
  pose proof (pre_check_ids_le p P) as I.
  rewrite <- (uniquify_preserves p p1 U W I SC fuel args) in *.
  eapply focus_prog_preserves_uniquified; eauto.
  rewrite (clash_free_prog_uniquify p p1 fuel args U W I SC). exact CF.
Qed.

Theorem uniquify_focus_preserves_guarded : forall bn kr p q args fuel,
  pre_check p = true -> focus_wf p = true -> cs_prog p = true -> focus_prog p = Ok q ->
  bn && kr = false -> sg_prog bn kr p = true ->
  good_end (snd (run_core fuel p args)) ->
  exists fuel', run_fs fuel' q args = run_core fuel p args.
Proof.
  intros bn kr p q args fuel P W SC F FL SG G.
  destruct (uniquify_unique_thm p P W) as (p1 & U & _).
  pose proof (pre_check_ids_le p P) as I.
  rewrite <- (uniquify_preserves p p1 U W I SC fuel args) in *.
  eapply focus_prog_preserves_guarded; eauto.
  rewrite (sg_prog_uniquify bn kr p p1 U W I SC). exact SG.
Qed.

(* one static side condition: a syntactic guard or typing *)
Lemma static_ok_clash_free : forall p, static_ok p = true -> forall fuel args, clash_free_prog fuel p args = true.
Proof.
  intros p H fuel args. unfold static_ok in H. apply orb_true_iff in H. destruct H as [H|H].
  - apply orb_true_iff in H. destruct H as [H|H].
    + apply (sg_clash_free_prog p false true eq_refl H).
    + apply (sg_clash_free_prog p true false eq_refl H).
  - apply andb_true_iff in H. destruct H as [H1 H2]. apply tc_clash_free_prog; assumption.
Qed.

Theorem uniquify_focus_preserves_static : forall p q args fuel,
  pre_check p = true -> focus_wf p = true -> cs_prog p = true -> static_ok p = true -> focus_prog p = Ok q ->
  good_end (snd (run_core fuel p args)) ->
  exists fuel', run_fs fuel' q args = run_core fuel p args.
Proof.
  intros p q args fuel P W SC ST F G. eapply uniquify_focus_preserves; eauto. apply static_ok_clash_free; exact ST.
Qed.
