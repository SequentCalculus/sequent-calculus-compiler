(* C08, heap statements WITHOUT the one-block restriction: non-vacuity of rv_codegen_simulates_all on a program whose
   objects need CHAINS of blocks.  The loop of Proof/RVHSimExample.v with the five-field record of Proof/AxHeapExample.v
   (two blocks: stored by `store_fields` with a continuation block, loaded destructively along the link) holding a list
   twice (sharing, non-destructive then destructive loads), and a closure that captures FOUR integers (a two-block
   environment: Create stores a chain, Invoke loads it).  Print-free (the RISC-V back end rejects print).  Written in
   named AxCut and linearized by the model of the compiler's linearization pass.  All hypotheses are evaluated, the
   theorem is applied, and both machines are computed. *)
From Coq Require Import List ZArith NArith String Bool Lia.
From SCC Require Import Base.Sexp Lang.AxSyn Sem.AxSem Sem.AxHeap Model.Backend Model.RV Sem.RVSem Sem.RVWf
     Model.Linearize Model.LinCheck Model.Capacity Proof.RVSimAddr Proof.RVSimTop Proof.RVHDefs Proof.RVKFrag Proof.X86HAnn
     Proof.RVKSimProgA Proof.RVKSimTop.
From SCC Require Model.Heap Proof.AxHeapTyping Proof.RVHSimExample Proof.RVHFrag.
Import ListNotations.
Open Scope Z_scope.

Notation fits_run := RVHSimExample.fits_run.
Notation fits_run_sound := RVHSimExample.fits_run_sound.

Section Ex.
Local Open Scope string_scope.
Local Open Scope N_scope.
Definition ki (n : string) (k : N) : ident := (n, k).
Definition KCont := Decl ("Cont", 0).
Definition KListT := Decl ("List", 0).
Definition KRecT := Decl ("Rec", 0).
Definition ke (x : ident) := mkb x Ext I64.
Definition kpl (x : ident) := mkb x Prd KListT.
Definition kck (x : ident) := mkb x Cns KCont.

Definition rk_types : list tydecl :=
  [ mkt ("Cont", 0) [mkx (ki "Ret" 0) [ke (ki "x" 0)]];
    mkt ("List", 0) [mkx (ki "Nil" 0) []; mkx (ki "Cons" 0) [ke (ki "x" 0); kpl (ki "xs" 0)]];
    mkt ("Rec", 0) [mkx (ki "R5" 0) [ke (ki "a" 0); ke (ki "b" 0); kpl (ki "l" 0); ke (ki "c" 0); kpl (ki "m" 0)]] ].

(* main(n, w, u1, u2, u3): k = { Ret(r) => s1 = r + w; s2 = s1 + u1; s3 = s2 + u2; s4 = s3 + u3; exit s4 }
   (captures w, u1, u2, u3: FOUR variables, two blocks); z = 0; loop(n, z, k) *)
Definition rk_main_ctx : ctx := [ke (ki "n" 1); ke (ki "w" 5); ke (ki "u1" 30); ke (ki "u2" 31); ke (ki "u3" 32)].
Definition rk_main_body : stmt :=
  Create (ki "k" 2) KCont None
    [ (ki "Ret" 0, [ke (ki "r" 3)],
        Op (ki "r" 3) Sum (ki "w" 5) (ki "s1" 6)
        (Op (ki "s1" 6) Sum (ki "u1" 30) (ki "s2" 33)
        (Op (ki "s2" 33) Sum (ki "u2" 31) (ki "s3" 34)
        (Op (ki "s3" 34) Sum (ki "u3" 32) (ki "s4" 35) (Exit (ki "s4" 35)))))) ]
  (Literal 0 (ki "z" 4)
  (Call (ki "loop" 0) [ke (ki "n" 1); ke (ki "z" 4); kck (ki "k" 2)])).

(* loop(j, acc, k): if j == 0 then k.Ret(acc) else
     nil = Nil; l1 = Cons(j, nil); l2 = Cons(j, l1); r = R5(j, acc, l2, j, l2)        (FIVE fields, two blocks)
     switch r { R5(a, b, l, c, m) =>
       switch l { Nil => k.Ret(a);
                  Cons(y, ys) => switch m { Nil => k.Ret(y);
                                            Cons(y2, ys2) => j' = j - 1; acc' = b + y2; loop(j', acc', k) } } } *)
Definition rk_loop_ctx : ctx := [ke (ki "j" 10); ke (ki "acc" 11); kck (ki "k" 12)].
Definition rk_loop_body : stmt :=
  IfC Eq (ki "j" 10) None
    (Invoke (ki "k" 12) (ki "Ret" 0) KCont [ke (ki "acc" 11)])
    (Let (ki "nil" 13) KListT (ki "Nil" 0) []
    (Let (ki "l1" 14) KListT (ki "Cons" 0) [ke (ki "j" 10); kpl (ki "nil" 13)]
    (Let (ki "l2" 15) KListT (ki "Cons" 0) [ke (ki "j" 10); kpl (ki "l1" 14)]
    (Let (ki "r" 16) KRecT (ki "R5" 0) [ke (ki "j" 10); ke (ki "acc" 11); kpl (ki "l2" 15); ke (ki "j" 10); kpl (ki "l2" 15)]
    (Switch (ki "r" 16) KRecT
      [ (ki "R5" 0, [ke (ki "a" 17); ke (ki "b" 18); kpl (ki "l" 19); ke (ki "c" 20); kpl (ki "m" 21)],
          Switch (ki "l" 19) KListT
            [ (ki "Nil" 0, [], Invoke (ki "k" 12) (ki "Ret" 0) KCont [ke (ki "a" 17)]);
              (ki "Cons" 0, [ke (ki "y" 22); kpl (ki "ys" 23)],
                 Switch (ki "m" 21) KListT
                   [ (ki "Nil" 0, [], Invoke (ki "k" 12) (ki "Ret" 0) KCont [ke (ki "y" 22)]);
                     (ki "Cons" 0, [ke (ki "y2" 27); kpl (ki "ys2" 28)],
                        Literal 1 (ki "one" 24)
                        (Op (ki "c" 20) Sub (ki "one" 24) (ki "j2" 25)
                        (Op (ki "b" 18) Sum (ki "y2" 27) (ki "acc2" 26)
                        (Call (ki "loop" 0) [ke (ki "j2" 25); ke (ki "acc2" 26); kck (ki "k" 12)])))) ]) ]) ]))))).

Definition rk_prog : prog :=
  mkp [mkd (ki "main" 0) rk_main_ctx rk_main_body; mkd (ki "loop" 0) rk_loop_ctx rk_loop_body] rk_types 35.
End Ex.
Definition rk_lin : prog := linearize rk_prog.

Definition rk_code : list rcode := match rv_compile rk_lin 0 with Ok (cs, _, _) => cs | Err _ => [] end.
Definition rk_args : list Z := [3; 100; 1000; 10000; 100000].

(* the widest Let / Switch clause / captured environment of a statement: the program is OUTSIDE the one-block fragment *)
Lemma rk_outside_h_frag : RVHFrag.h_frag rk_lin = false.
Proof. vm_compute. reflexivity. Qed.

Lemma rk_hypotheses :
  SimFrag.entry_int rk_lin = true /\ lin_check_prog rk_lin = true /\ ann_check_prog rk_lin = true /\
  (exists lc', rv_compile rk_lin 0 = Ok (rk_code, 5%nat, lc')) /\ asm_wf rk_code = None /\ code_small rk_code = true /\
  Nat.leb (main_arity rk_lin) 14 = true /\ fits_run 2000 rk_lin rk_args = true.
Proof.
  split; [vm_compute; reflexivity|]. split; [vm_compute; reflexivity|]. split; [vm_compute; reflexivity|].
  split; [eexists; vm_compute; reflexivity|]. split; [vm_compute; reflexivity|]. split; [vm_compute; reflexivity|].
  split; vm_compute; reflexivity.
Qed.

(* the theorem applies: there are step counts for which the RISC-V run gives the observation of the linear machine ... *)
Lemma rk_simulated : exists outer inner, fst (run_rv outer inner rk_code rk_args) = run_linear 2000 rk_lin rk_args.
Proof.
  destruct rk_hypotheses as (H1 & H2 & H3 & (lc' & H5) & H6 & H7 & H8 & H9).
  refine (rv_codegen_simulates_all rk_lin 0 rk_code 5 lc' rk_args 2000 _ H1 H2 H3 H5 H6 H7 H8 eq_refl
            (fits_run_sound 2000 _ _ H9) eq_refl _).
  vm_compute. discriminate.
Qed.
(* ... and, evaluated, both sides: three iterations, each allocating a two-block record, sharing, loading along the link
   and dropping objects; the closure adds the four captured integers loaded from its two-block environment *)
Lemma rk_runs :
  run_linear 2000 rk_lin rk_args = ([], OExit 111106) /\
  fst (run_rv 20 2000 rk_code rk_args) = ([], OExit 111106).
Proof. split; vm_compute; reflexivity. Qed.

(* the code really contains the chain layer: a link is stored into and loaded from the third pointer slot (offset 48) *)
Lemma rk_code_has_links :
  existsb (fun c => match c with SW _ 2%N 48 => true | _ => false end) rk_code = true /\
  existsb (fun c => match c with LW _ _ 48 => true | _ => false end) rk_code = true.
Proof. split; vm_compute; reflexivity. Qed.

(* ---------- an EMPTY Switch is covered too ----------
   A match on a data type without constructors emits a label only.  main(n) creates a single-destructor closure whose clause
   body is such a Switch (no captured variable: the clause code consists of three labels, no instruction - an indirect jump
   to it would have nothing to land on) and exits; the closure is dropped.  The landing of an Invoke is established when
   the closure is invoked, where the code of the statement the machine executes provably contains an instruction
   (Proof/RVKSimProg.v), so no guard on the program excludes this shape. *)
Section ExEmpty.
Local Open Scope string_scope.
Local Open Scope N_scope.
Definition re_types : list tydecl :=
  [ mkt ("Empty", 0) []; mkt ("K", 0) [mkx (ki "D" 0) [mkb (ki "e" 0) Prd (Decl ("Empty", 0))]] ].
Definition re_main_body : stmt :=
  Create (ki "k" 2) (Decl ("K", 0)) None
    [ (ki "D" 0, [mkb (ki "e" 3) Prd (Decl ("Empty", 0))], Switch (ki "e" 3) (Decl ("Empty", 0)) []) ]
  (Exit (ki "n" 1)).
Definition re_prog : prog := mkp [mkd (ki "main" 0) [ke (ki "n" 1)] re_main_body] re_types 3.
End ExEmpty.
Definition re_lin : prog := linearize re_prog.
Definition re_code : list rcode := match rv_compile re_lin 0 with Ok (cs, _, _) => cs | Err _ => [] end.

Lemma re_hypotheses :
  SimFrag.entry_int re_lin = true /\ lin_check_prog re_lin = true /\ ann_check_prog re_lin = true /\
  (exists lc', rv_compile re_lin 0 = Ok (re_code, 1%nat, lc')) /\ asm_wf re_code = None /\ code_small re_code = true /\
  Nat.leb (main_arity re_lin) 14 = true /\ fits_run 100 re_lin [7] = true.
Proof.
  split; [vm_compute; reflexivity|]. split; [vm_compute; reflexivity|]. split; [vm_compute; reflexivity|].
  split; [eexists; vm_compute; reflexivity|]. split; [vm_compute; reflexivity|]. split; [vm_compute; reflexivity|].
  split; vm_compute; reflexivity.
Qed.
(* the last three items of the code are the labels of the clause: nothing of non-zero size follows the closure's label *)
Lemma re_code_ends_with_labels :
  match rev re_code with LAB _ :: LAB _ :: LAB _ :: _ => true | _ => false end = true.
Proof. vm_compute. reflexivity. Qed.
Lemma re_simulated : exists outer inner, fst (run_rv outer inner re_code [7]) = run_linear 100 re_lin [7].
Proof.
  destruct re_hypotheses as (H1 & H2 & H3 & (lc' & H5) & H6 & H7 & H8 & H9).
  refine (rv_codegen_simulates_all re_lin 0 re_code 1 lc' [7] 100 _ H1 H2 H3 H5 H6 H7 H8 eq_refl
            (fits_run_sound 100 _ _ H9) eq_refl _).
  vm_compute. discriminate.
Qed.
Lemma re_runs : run_linear 100 re_lin [7] = ([], OExit 7) /\ fst (run_rv 20 2000 re_code [7]) = ([], OExit 7).
Proof. split; vm_compute; reflexivity. Qed.
