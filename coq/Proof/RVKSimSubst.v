(* C08, forward simulation for HEAP statements: Substitute with objects and closures that own heap
   blocks, under the relation `hrel` of Proof/RVKSimRel.v.  The reference-count code (Proof/RVHMem.v `rv_weakening_contraction_ok`) performs, in the
   abstraction `abs_heap`, exactly the operations `subst_ops` of the instrumented machine (Sem/AxHeap.v), in
   the same order (the order of the BTreeMap `transpose`); the parallel moves (Proof/RVSubst.v
   `rv_parallel_moves_ok`) then carry both registers of every surviving variable to its new position.  The
   counterpart of Proof/X86HSimSubst.v. *)
From Coq Require Import List ZArith NArith String Bool Lia FMapPositive Permutation.
From SCC Require Import Base.Sexp Lang.AxSyn Sem.AxSem Sem.AxHeap Model.ParMoves Model.Backend Model.RV Sem.RVSem Sem.RVWf
     Model.Linearize Model.LinCheck Generated.Constants Proof.LinBasics
     Proof.RVSel Proof.SubstGraph Proof.SubstBackends Proof.RVSubst Proof.RVSimAddr Proof.BackendInv Proof.RVSimRel
     Proof.RVSimStmt Proof.RVHeapAbs Proof.RVHDefs Proof.RVHMem Proof.RVHBridge Proof.HRep Proof.RVKSimRel.
From SCC Require Model.Heap Proof.HeapMore Proof.HeapTrace Proof.HeapRep Proof.HeapBridge Proof.A64PM Proof.X86HSimSubst.
Import ListNotations.
Open Scope Z_scope.
Open Scope list_scope.

Notation hsubst_nth := X86HSimSubst.hsubst_nth.
Notation hsubst_ids := X86HSimSubst.hsubst_ids.
Notation hlookup_Some := X86HSimSubst.hlookup_Some.
Notation hlookup_nodup := X86HSimSubst.hlookup_nodup.

(* the operations of a substitution, along the object variables of the transposed map *)
Lemma subst_ops_order (P : binding -> Z) re : forall (tm : list (binding * list N)),
  (forall b tg, In (b, tg) tm -> tg = targets re b) ->
  flat_map (fun bt : binding * list N => AxHeap.rc_op (bchi (fst bt)) (P (fst bt)) (List.length (snd bt))) tm =
  flat_map (fun b => AxHeap.rc_op (bchi b) (P b) (count_targets re b)) (filter is_obj (map fst tm)).
Proof. apply X86HSimSubst.subst_ops_order. Qed.


(* how many counts a substitution changes *)
Lemma targets_length re b : List.length (targets re b) = count_targets re b.
Proof. unfold targets, count_targets. now rewrite map_length. Qed.
Lemma n_erase_le tm : n_erase tm <= Z.of_nat (List.length tm).
Proof.
  unfold n_erase. apply inj_le. induction tm as [|a l IH]; cbn [filter List.length]; [lia|].
  match goal with |- context [if ?g then _ else _] => destruct g end; cbn [List.length]; lia.
Qed.
Lemma n_share_le (K : nat) : forall tm, (forall b tg, In (b, tg) tm -> (List.length tg <= K)%nat) ->
  n_share tm <= Z.of_nat (List.length tm) * Z.of_nat K.
Proof.
  induction tm as [|[b tg] tm IH]; intros H; [cbn; lia|].
  assert (IH' : n_share tm <= Z.of_nat (List.length tm) * Z.of_nat K) by (apply IH; intros b' tg' Hin; apply (H b' tg'); now right).
  pose proof (H b tg (or_introl eq_refl)) as L. pose proof (n_share_nonneg tm) as NN.
  unfold n_share in *. cbn [fold_right fst snd List.length]. destruct (bchi b); nia.
Qed.

Section HSubst.
Variable im : image.
Variable types : list tydecl.
Variable CLO : Z -> ident -> list clause -> ctx -> Prop.
Local Notation hrel := (hrel types CLO).
Local Notation hvrep := (hvrep types CLO).
Local Notation xrep := (HRep.xrep types CLO jump_length any_int).

Theorem hsim_substitute c he hs s re he' c1 lc lc1 c2 pc hl fl cl :
  hrel c he hs s -> NoDup (new_ids re) ->
  (forall q, In q re -> has c (snd q) (bchi (fst q)) (bty (fst q)) = true) ->
  hsubst he re = Some he' -> ctx_of he = c ->
  InvA HEAP_BASE hs (roots he) hl fl cl -> P03 hs -> Heap.frontier hs <= LIMIT ->
  code_weakening_contraction rv_backend (transpose re c) c lc = Ok (c1, lc1) ->
  code_exchange rv_backend (transpose re c) c (map fst re) = Ok c2 ->
  placed im pc (c1 ++ c2) ->
  exists s', star im pc s (padd pc (List.length (c1 ++ c2))) s' /\
             hrel (map fst re) he' (hrun (subst_ops he re) hs) s'.
Proof.
  intros R NDn KIND HS CTX IA K03 HFr WC CE PL.
  pose proof (hr_nodup R) as NDc. pose proof (hrel_length R) as LEN.
  pose proof (hrel_small types CLO _ _ _ _ R) as SMALL.
  apply placed_app in PL as [PL1 [CA2 _]].
  unfold code_exchange in CE.
  destruct (connections rv_backend (transpose re c) c (map fst re)) as [am|] eqn:CN; cbn [rbind] in CE; [|discriminate].
  (* every new variable has a source position of the same kind and type *)
  assert (SRC : forall j pj, nth_error re j = Some pj ->
            exists i bi, nth_error c i = Some bi /\ idn (bvar bi) = idn (snd pj) /\
                         bchi bi = bchi (fst pj) /\ bty bi = bty (fst pj)).
  { intros j pj Hj. specialize (KIND pj (nth_error_In _ _ Hj)). unfold has in KIND.
    destruct (lookup_b c (idn (snd pj))) as [bi|] eqn:LB; [|discriminate].
    apply lookup_b_Some in LB as [Hin Hid]. apply andb_true_iff in KIND as [K1 K2].
    apply chi_eqb_eq in K1. apply ty_eqb_eq in K2. apply In_nth_error in Hin as (i & Hi). eauto 8. }
  (* at most 14 new variables: each has registers *)
  assert (LR : (List.length re <= 14)%nat).
  { destruct (Nat.le_gt_cases (List.length re) 14) as [L|L]; [lia|]. exfalso.
    destruct (nth_error re 14) as [pj|] eqn:Hj; [|apply nth_error_None in Hj; lia].
    destruct (SRC _ _ Hj) as (i & bi & Hi & Ei & _).
    destruct (subst_edge c re am Snd i bi 14%nat pj NDc NDn CN Hi (or_introl eq_refl) Hj (eq_sym Ei)) as (_ & tb & _ & Tb & _).
    apply rtpos_val in Tb. lia. }
  (* the entries of the environment, by position *)
  assert (ENT : forall i b, nth_error c i = Some b ->
            exists x v q, nth_error he i = Some (x, v, q) /\ idn x = idn (bvar b) /\ hvrep s i b v q).
  { intros i b Hb. assert (Li : (i < List.length he)%nat) by (rewrite LEN; apply nth_error_Some; congruence).
    destruct (nth_error he i) as [[[x v] q]|] eqn:He; [|apply nth_error_None in He; lia].
    destruct (hr_vals R i x v q He) as (b' & Hb' & V). assert (b' = b) by congruence. subst b'.
    destruct (henv_ctx_nth c he i x v q (hr_ids R) He) as (b'' & Hb'' & Eb). assert (b'' = b) by congruence. subst b''.
    exists x, v, q. auto. }
  set (tm := transpose re c) in *.
  assert (TMOK : forall b tg, In (b, tg) tm -> In b c /\ tg = targets re b).
  { intros b tg Hb. now apply (In_transpose re c b tg (NoDup_map_inv _ _ NDc)) in Hb. }
  assert (NDe : NoDup (env_ids (erase_env he))) by (rewrite (hr_ids R); exact NDc).
  set (ptr := fun b : binding => AxHeap.ptr_of he (idn (bvar b))).
  (* the block pointer of an object variable: in its first register, null or a block *)
  assert (PTRB : forall b, In b c -> bchi b <> Ext ->
            exists i t1, nth_error c i = Some b /\ rtpos Fst i = Ok t1 /\ rget s t1 = Some (ptr b) /\ (ptr b = 0 \/ is_blk (ptr b))).
  { intros b Hin Hne. apply In_nth_error in Hin as (i & Hi).
    destruct (ENT i b Hi) as (x & v & q & He & Ex & V).
    assert (AQ : ptr b = q).
    { unfold ptr, AxHeap.ptr_of. rewrite <- Ex. change (idn x) with (idn (h_id (x, v, q))).
      rewrite (hlookup_nodup he i (x, v, q) NDe He). reflexivity. }
    destruct V as [b z q t0 A B T Lg|b v q a t1 t2 A K1 K2 T1 T2 L1 L2 X]; [contradiction|].
    exists i, t1. rewrite AQ. split; [exact Hi|]. split; [exact T1|]. split; [exact L1|]. eapply (HRep.xrep_ptr types CLO jump_length any_int); eauto. }
  (* phase 1: the reference counts *)
  set (F0 := Heap.frontier hs). pose proof (hr_heq R) as HQ. fold F0 in HQ.
  assert (LTM : List.length tm = List.length c).
  { unfold tm. rewrite (Permutation_length (transpose_perm re c (NoDup_map_inv _ _ NDc))). now rewrite map_length. }
  assert (HL14 : forall b tg, In (b, tg) tm -> (List.length tg <= 14)%nat).
  { intros b tg Hin. destruct (TMOK b tg Hin) as [_ ->]. rewrite targets_length. pose proof (count_targets_le re b). lia. }
  pose proof (n_erase_le tm) as NE. pose proof (n_share_le 14 tm HL14) as NS.
  pose proof (n_erase_nonneg tm) as NE0. pose proof (n_share_nonneg tm) as NS0.
  assert (NE14 : n_erase tm <= 14) by lia. assert (NS196 : n_share tm <= 196) by nia.
  assert (HBD : hb (n_erase tm) (n_share tm) s).
  { split.
    - intros x Hx. destruct (heq_abs_ps F0 s hs x HQ Hx) as [_ E]. rewrite <- E.
      pose proof (hdr_bounds_r hs _ hl fl cl IA (P03_P3 _ K03) HFr ltac:(pose proof (roots_length he); lia) x Hx) as B.
      unfold HB, min_int, max_int, two63 in *. lia.
    - exists (Heap.free hs). split; [exact (hr_freereg R)|].
      assert (FB : 0 <= Heap.free hs <= LIMIT).
      { destruct (HeapRep.free_cases _ _ _ _ _ (proj1 IA)) as [[E _]|Hf].
        - rewrite E. pose proof (Heap.i_front _ _ _ _ _ (proj1 IA)). lia.
        - pose proof (Heap.i_below _ _ _ _ _ (proj1 IA) (Heap.free hs) ltac:(rewrite !in_app_iff; auto)). lia. }
      unfold LIMIT, HEAP_BASE, HEAP_SIZE, min_int, max_int, two63 in *. lia. }
  pose proof (rv_weakening_contraction_ok im ptr c F0 tm lc c1 lc1 pc s WC PL1
                (ex_intro _ _ (hr_heapreg R))) as PH1. cbv zeta in PH1.
  destruct PH1 as (s1 & X1 & EQ1 & KR1 & NB1 & (f1 & RF1)).
  { intros b tg t Hin Hne Ht. destruct (TMOK b tg Hin) as [Hc _].
    destruct (PTRB b Hc Hne) as (i & t1 & Hi & T1 & L1 & PB).
    rewrite (vt_tpos rv_backend Fst c i b NDc Hi) in Ht. assert (t1 = t) by congruence. subst t1. auto. }
  { exact HBD. }
  { lia. }
  { lia. }
  { intros b tg Hin. pose proof (HL14 b tg Hin). lia. }
  assert (SOPS : subst_ops he re =
                 flat_map (fun bt : binding * list N => AxHeap.rc_op (bchi (fst bt)) (ptr (fst bt)) (List.length (snd bt))) tm).
  { unfold subst_ops. rewrite CTX. reflexivity. }
  rewrite <- SOPS in EQ1.
  assert (OPOK : Forall rc_opnd_ok (subst_ops he re)).
  { rewrite SOPS. apply Forall_forall. intros o Ho. apply in_flat_map in Ho as ([b tg] & Hin & Ho). cbn [fst snd] in Ho.
    assert (PB : bchi b <> Ext -> ptr b = 0 \/ is_blk (ptr b)).
    { intros Hne. destruct (TMOK b tg Hin) as [Hc _]. destruct (PTRB b Hc Hne) as (_ & _ & _ & _ & _ & P). exact P. }
    unfold AxHeap.rc_op in Ho.
    destruct (bchi b); [| |destruct Ho];
      (destruct (List.length tg) as [|[|m]]; [destruct Ho as [<-|[]]|destruct Ho|destruct Ho as [<-|[]]];
       cbn [rc_opnd_ok]; apply PB; discriminate). }
  set (hs2 := hrun (subst_ops he re) hs) in *.
  assert (HQ2 : heq (abs_heap F0 s1) hs2).
  { eapply heq_eqB; [exact EQ1|]. apply heq_rc_ops; [exact HQ|exact OPOK]. }
  (* phase 2: the parallel moves *)
  destruct (connections_moves_ok c re am NDc NDn CN) as (IDG & NT & AMOK).
  pose proof (connections_edges rv_backend rv_backend_ok c re am NDc NDn CN) as EDG.
  destruct (rv_parallel_moves_ok im (padd pc (List.length c1)) am c2 s1 IDG NT AMOK CE CA2) as (s2 & E2 & H2 & W2 & P1 & P2).
  assert (KEEP : forall u, (u = HEAP \/ u = FREE) -> rget s2 u = rget s1 u).
  { intros u Hu. apply P2.
    - unfold rv_operand_ok. change ZERO with 0%N. change TEMP with 1%N. change HEAP with 2%N in Hu. change FREE with 3%N in Hu. lia.
    - intros a E. apply EDG in E as (k & j & bk & pj & n & _ & _ & _ & _ & _ & Hb). apply rtpos_regs in Hb. destruct Hu; subst; tauto. }
  assert (SW : forall a, hword s2 a = hword s1 a) by (intros a; unfold hword; now rewrite H2).
  assert (EXT : forall a, ~ is_blk a -> hword s2 a = hword s a).
  { intros a Ha. rewrite SW. exact (NB1 a Ha). }
  exists s2. split; [rewrite app_length, padd_add; eapply star_trans; eauto|].
  pose proof HQ2 as (Q1 & Q2 & Q3 & Q4). cbn [abs_heap Heap.heap Heap.free Heap.frontier] in Q1, Q2, Q3.
  assert (RH1 : rget s1 HEAP = Some (Heap.heap hs)) by (rewrite KR1 by discriminate; exact (hr_heapreg R)).
  assert (RH2 : rget s2 HEAP = Some (Heap.heap hs2)).
  { rewrite (KEEP HEAP (or_introl eq_refl)), RH1. unfold reg_or0 in Q1. rewrite RH1 in Q1. now rewrite Q1. }
  assert (RF2 : rget s2 FREE = Some (Heap.free hs2)).
  { rewrite (KEEP FREE (or_intror eq_refl)), RF1. unfold reg_or0 in Q2. rewrite RF1 in Q2. now rewrite Q2. }
  destruct R as [Hr Frr HQ0 Ids ND0 Vals]. split.
  - exact RH2.
  - exact RF2.
  - rewrite <- Q3. apply (heq_same_words F0 s1 s2 hs2 SW); [apply KEEP; auto|apply KEEP; auto|exact HQ2].
  - rewrite (hsubst_ids re he he' HS). now rewrite ids_new.
  - now rewrite ids_new.
  - intros j x v q Hj.
    destruct (hsubst_nth re he he' j x v q HS Hj) as (pj & en & Hre & HL & -> & -> & ->).
    exists (fst pj). split; [now rewrite nth_error_map, Hre|].
    destruct (hlookup_Some he _ en HL) as (i & Hi & Ei). destruct en as [[y w] p]. cbn [h_val h_ptr h_id fst snd] in *.
    destruct (Vals i y w p Hi) as (bi & Hbi & V).
    destruct (SRC j pj Hre) as (i' & bi' & Hi' & Ei' & KC & KT).
    assert (i' = i).
    { destruct (henv_ctx_nth c he i y w p Ids Hi) as (b0 & Hb0 & Eb0).
      eapply (ids_nth_inj c i' i bi' b0); eauto. congruence. }
    subst i'. assert (bi' = bi) by congruence. subst bi'.
    assert (MV : forall n ta, allowed n bi -> rtpos n i = Ok ta -> exists tb, rtpos n j = Ok tb /\ rget s2 tb = rget s ta).
    { intros n ta AL Ta.
      destruct (subst_edge c re am n i bi j pj NDc NDn CN Hbi AL Hre (eq_sym Ei')) as (ta' & tb & Ta' & Tb & ED).
      assert (ta' = ta) by congruence. subst ta'. exists tb. split; [exact Tb|].
      rewrite (P1 ta tb ED). destruct (rtpos_regs n i ta Ta) as (_ & A1 & _ & A3). now apply KR1. }
    destruct V as [bi z p t A B T Lg|bi w p a t1 t2 A K1 K2 T1 T2 L1 L2 X].
    + destruct (MV Snd t (or_introl eq_refl) T) as (tb & Tb & Lb).
      eapply hv_int; eauto; congruence.
    + assert (AL : forall n, allowed n bi) by (intros n; right; exact A).
      destruct (MV Fst t1 (AL Fst) T1) as (tb1 & Tb1 & Lb1). destruct (MV Snd t2 (AL Snd) T2) as (tb2 & Tb2 & Lb2).
      eapply (hv_ptr types CLO s2 j (fst pj) w p a); eauto; try congruence.
      eapply (HRep.xrep_ext types CLO jump_length any_int); [exact EXT|exact X].
Qed.
End HSubst.
