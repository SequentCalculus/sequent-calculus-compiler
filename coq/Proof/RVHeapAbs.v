(* C08 / C09 on RISC-V: the allocator code of axcut2rv64's memory.rs refines the operations of the
   ABSTRACT ALLOCATOR Model/Heap.v (the one whose invariant C09 is about), through the abstraction
     abs_heap F s   header = word 0 of a block, pointer slots = the words at offsets 16, 32, 48,
                    heap / free = the registers X2 / X3, the frontier a ghost
   (the RISC-V counterpart of Proof/X86Mem.v's `abs_heap`).  Proof/RVSel.v proves the code against
   word-level specifications (`a_share`, `a_erase`, `a_release`, `a_acquire` on `aheap`); this file shows
   that those specifications ARE `Heap.share`, `Heap.erase`, `Heap.release`, `Heap.acquire` on the blocks
   of the heap region (equality of abstract states on blocks, `st_eqB`: memories are functions and no
   extensionality axiom is used), provided no 64-bit count wraps, and composes the two. *)
From Coq Require Import List ZArith NArith String Bool Lia FMapPositive.
From SCC Require Import Base.Sexp Lang.AxSyn Sem.AxSem Model.Backend Model.RV Sem.RVSem Generated.Constants Proof.RVSel.
From SCC Require Model.Heap Proof.X86Mem.
Import ListNotations.
Open Scope Z_scope.

Definition abs_mem (s : rstate) : Heap.mem :=
  fun a => {| Heap.hdr := hword s a; Heap.ps := [hword s (a + 16); hword s (a + 32); hword s (a + 48)] |}.
Definition reg_or0 (s : rstate) (r : N) : Z := match rget s r with Some z => z | None => 0 end.
Definition abs_heap (F : Z) (s : rstate) : Heap.st :=
  {| Heap.m := abs_mem s; Heap.heap := reg_or0 s HEAP; Heap.free := reg_or0 s FREE; Heap.frontier := F |}.
(* the same from the word-level view of Proof/RVSel.v *)
Definition habs (F : Z) (h : aheap) : Heap.st :=
  {| Heap.m := fun a => {| Heap.hdr := words h a; Heap.ps := [words h (a + 16); words h (a + 32); words h (a + 48)] |};
     Heap.heap := hp h; Heap.free := fp h; Heap.frontier := F |}.

(* block addresses of the heap region *)
Definition is_blk (a : Z) : Prop := exists k, 0 <= k /\ a = HEAP_BASE + 64 * k /\ a + 64 <= HEAP_BASE + HEAP_SIZE.
(* equality of abstract states on the blocks *)
Definition st_eqB (a b : Heap.st) : Prop :=
  Heap.heap a = Heap.heap b /\ Heap.free a = Heap.free b /\ Heap.frontier a = Heap.frontier b /\
  forall x, is_blk x -> Heap.m a x = Heap.m b x.

Notation st_eqB_refl := X86Mem.st_eqB_refl.
Notation st_eqB_trans := X86Mem.st_eqB_trans.
Notation st_eqB_sym := X86Mem.st_eqB_sym.

Lemma represents_abs F s h : represents s h -> st_eqB (abs_heap F s) (habs F h).
Proof.
  intros (W & HP & FP). unfold abs_heap, habs, reg_or0. rewrite HP, FP. repeat split; auto.
  intros x _. unfold abs_mem. cbn [Heap.m]. now rewrite !W.
Qed.
(* every state with defined allocator registers represents its own words *)
Definition own_heap (s : rstate) : aheap := {| words := hword s; hp := reg_or0 s HEAP; fp := reg_or0 s FREE |}.
Lemma represents_own s h0 f0 : rget s HEAP = Some h0 -> rget s FREE = Some f0 -> represents s (own_heap s).
Proof. intros A B. unfold own_heap, reg_or0. rewrite A, B. repeat split; auto. Qed.

Lemma is_blk_valid_block b : is_blk b -> valid_block b.
Proof.
  intros (k & Hk & -> & Hhi) j Hj. unfold valid_addr, aligned, in_heap, HEAP_BASE, HEAP_SIZE in *. split.
  - apply Z.eqb_eq. replace (268435456 + 64 * k + 8 * j) with ((33554432 + 8 * k + j) * 8) by lia. apply Z.mod_mul. lia.
  - apply andb_true_iff. split; apply Z.leb_le; lia.
Qed.
Lemma is_blk_valid_addr b : is_blk b -> valid_addr b.
Proof. intros H. rewrite <- (Z.add_0_r b). change 0 with (8 * 0). apply (is_blk_valid_block b H). lia. Qed.
Lemma is_blk_apart b b' : is_blk b -> is_blk b' -> b <> b' -> b + 64 <= b' \/ b' + 64 <= b.
Proof. intros (k & Hk & -> & _) (j & Hj & -> & _) NE. lia. Qed.
Lemma is_blk_pos b : is_blk b -> 0 < b.
Proof. intros (k & Hk & -> & _). unfold HEAP_BASE. lia. Qed.
Lemma blk_off_ne x p off : is_blk x -> is_blk p -> 0 < off < 64 -> x + off <> p.
Proof. intros (k & Hk & -> & _) (j & Hj & -> & _) Ho. unfold HEAP_BASE. lia. Qed.
Lemma ptr_valid p : (p = 0 \/ is_blk p) -> (p = 0 \/ valid_addr p).
Proof. intros [->|H]; [now left|right; now apply is_blk_valid_addr]. Qed.

(* a header write, seen through the abstraction *)
Lemma habs_upd_hdr F h p v x :
  is_blk p -> is_blk x ->
  {| Heap.hdr := upd (words h) p v x;
     Heap.ps := [upd (words h) p v (x + 16); upd (words h) p v (x + 32); upd (words h) p v (x + 48)] |}
  = Heap.set_hdr (Heap.m (habs F h)) p v x.
Proof.
  intros Hp Hx. unfold Heap.set_hdr, Heap.upd, upd.
  destruct (Z.eqb_spec (x + 16) p) as [E|_]; [exfalso; eapply (blk_off_ne x p 16); eauto; lia|].
  destruct (Z.eqb_spec (x + 32) p) as [E|_]; [exfalso; eapply (blk_off_ne x p 32); eauto; lia|].
  destruct (Z.eqb_spec (x + 48) p) as [E|_]; [exfalso; eapply (blk_off_ne x p 48); eauto; lia|].
  destruct (Z.eqb_spec x p) as [->|N]; reflexivity.
Qed.

(* the word-level specifications are the abstract operations *)
Lemma habs_share F h p n :
  (p = 0 \/ is_blk p) -> (p <> 0 -> min_int <= words h p + n <= max_int) ->
  st_eqB (habs F (a_share p n h)) (Heap.share p n (habs F h)).
Proof.
  intros Hp NW. unfold a_share, Heap.share. destruct (Z.eqb_spec p 0) as [->|P0]; [apply st_eqB_refl|].
  destruct Hp as [?|Hb]; [contradiction|]. rewrite (wrap_small _ (NW P0)).
  repeat split; auto. intros x Hx. cbn [habs Heap.m words]. now apply (habs_upd_hdr F h p).
Qed.
Lemma habs_erase F h p :
  (p = 0 \/ is_blk p) -> (p <> 0 -> words h p <> 0 -> min_int <= words h p - 1 <= max_int) ->
  st_eqB (habs F (a_erase p h)) (Heap.erase p (habs F h)).
Proof.
  intros Hp NW. unfold a_erase, Heap.erase. destruct (Z.eqb_spec p 0) as [->|P0]; [apply st_eqB_refl|].
  destruct Hp as [?|Hb]; [contradiction|]. cbn [habs Heap.m Heap.hdr].
  destruct (Z.eqb_spec (words h p) 0) as [E0|N0].
  - repeat split; auto. intros x Hx. cbn [habs Heap.m words Heap.free]. now apply (habs_upd_hdr F h p).
  - rewrite (wrap_small _ (NW P0 N0)). repeat split; auto. intros x Hx. cbn [habs Heap.m words]. now apply (habs_upd_hdr F h p).
Qed.
Lemma habs_release F h b : is_blk b -> st_eqB (habs F (a_release b h)) (Heap.release b (habs F h)).
Proof.
  intros Hb. unfold a_release, Heap.release. repeat split; auto. intros x Hx. cbn [habs Heap.m words Heap.heap].
  now apply (habs_upd_hdr F h b).
Qed.

(* operations respect the block-wise equality *)
Notation erase_st_eqB := X86Mem.erase_st_eqB.
Lemma share_st_eqB a b p n : st_eqB a b -> (p = 0 \/ is_blk p) -> st_eqB (Heap.share p n a) (Heap.share p n b).
Proof.
  intros (A1 & A2 & A3 & A4) Hp. unfold Heap.share. destruct (Z.eqb_spec p 0); [repeat split; auto|].
  destruct Hp as [|Hb]; [contradiction|]. rewrite (A4 p Hb). (split; [|split; [|split]]); cbn; auto.
  intros x Hx. unfold Heap.set_hdr, Heap.upd. destruct (x =? p); rewrite ?(A4 p Hb), ?(A4 x Hx); auto.
Qed.
Lemma release_st_eqB a b p : st_eqB a b -> is_blk p -> st_eqB (Heap.release p a) (Heap.release p b).
Proof.
  intros (A1 & A2 & A3 & A4) Hb. unfold Heap.release. (split; [|split; [|split]]); cbn; auto.
  intros x Hx. unfold Heap.set_hdr, Heap.upd. destruct (x =? p); rewrite ?A1, ?(A4 p Hb), ?(A4 x Hx); auto.
Qed.

(* the three children of a block, erased one after the other: on words and on the abstract heap *)
Definition child_ok (h : aheap) (c : Z) : Prop :=
  (c = 0 \/ is_blk c) /\ (c <> 0 -> words h c <> 0 -> min_int <= words h c - 1 <= max_int).
Lemma a_erase_slots p h b off : (p = 0 \/ is_blk p) -> is_blk b -> 0 < off < 64 -> words (a_erase p h) (b + off) = words h (b + off).
Proof.
  intros Hp Hb Ho. unfold a_erase. destruct (p =? 0) eqn:E0; [reflexivity|]. apply Z.eqb_neq in E0.
  destruct Hp as [?|Hp]; [contradiction|]. pose proof (blk_off_ne b p off Hb Hp Ho) as NE.
  destruct (words h p =? 0); cbn [words]; unfold upd; destruct (Z.eqb_spec (b + off) p); congruence.
Qed.
Lemma habs_erase_children F h b :
  is_blk b ->
  let c0 := words h (b + 16) in let c1 := words h (b + 32) in let c2 := words h (b + 48) in
  child_ok h c0 -> child_ok (a_erase c0 h) c1 -> child_ok (a_erase c1 (a_erase c0 h)) c2 ->
  st_eqB (habs F (erase_children b [0; 1; 2]%N h))
         (fold_left (fun s c => Heap.erase c s) [c0; c1; c2] (habs F h)) /\
  children_ok b [0; 1; 2]%N h.
Proof.
  intros Hb c0 c1 c2 (B0 & W0) (B1 & W1) (B2 & W2).
  cbn [erase_children children_ok fold_left].
  change (field_offset Fst 0) with 16. change (field_offset Fst 1) with 32. change (field_offset Fst 2) with 48.
  fold c0. rewrite (a_erase_slots c0 h b 32 B0 Hb ltac:(lia)). fold c1.
  rewrite (a_erase_slots c1 _ b 48 B1 Hb ltac:(lia)), (a_erase_slots c0 h b 48 B0 Hb ltac:(lia)). fold c2.
  split.
  - eapply st_eqB_trans; [apply habs_erase; [exact B2|exact W2]|]. apply erase_st_eqB; [|exact B2].
    eapply st_eqB_trans; [apply habs_erase; [exact B1|exact W1]|]. apply erase_st_eqB; [|exact B1].
    apply habs_erase; [exact B0|exact W0].
  - split; [apply ptr_valid; exact B0|]. split; [apply ptr_valid; exact B1|]. split; [apply ptr_valid; exact B2|exact I].
Qed.

(* only headers of blocks are written *)
Lemma a_erase_nonblk p h a : (p = 0 \/ is_blk p) -> ~ is_blk a -> words (a_erase p h) a = words h a.
Proof.
  intros Hp Ha. unfold a_erase. destruct (p =? 0) eqn:E0; [reflexivity|]. apply Z.eqb_neq in E0.
  destruct Hp as [?|Hp]; [contradiction|].
  destruct (words h p =? 0); cbn [words]; unfold upd; destruct (Z.eqb_spec a p); subst; try contradiction; reflexivity.
Qed.
Lemma a_share_nonblk p n h a : (p = 0 \/ is_blk p) -> ~ is_blk a -> words (a_share p n h) a = words h a.
Proof.
  intros Hp Ha. unfold a_share. destruct (p =? 0) eqn:E0; [reflexivity|]. apply Z.eqb_neq in E0.
  destruct Hp as [?|Hp]; [contradiction|]. cbn [words]. unfold upd. destruct (Z.eqb_spec a p); subst; try contradiction; reflexivity.
Qed.
Lemma not_blk_off b off : is_blk b -> 0 < off < 64 -> ~ is_blk (b + off).
Proof. intros (k & Hk & -> & _) Ho (j & Hj & E & _). unfold HEAP_BASE in *. lia. Qed.
Lemma erase_children_eq h b :
  is_blk b ->
  let c0 := words h (b + 16) in let c1 := words h (b + 32) in let c2 := words h (b + 48) in
  (c0 = 0 \/ is_blk c0) -> (c1 = 0 \/ is_blk c1) -> (c2 = 0 \/ is_blk c2) ->
  erase_children b [0; 1; 2]%N h = a_erase c2 (a_erase c1 (a_erase c0 h)).
Proof.
  intros Hb c0 c1 c2 B0 B1 B2. cbn [erase_children].
  change (field_offset Fst 0) with 16. change (field_offset Fst 1) with 32. change (field_offset Fst 2) with 48.
  fold c0. rewrite (a_erase_slots c0 h b 32 B0 Hb ltac:(lia)). fold c1.
  rewrite (a_erase_slots c1 _ b 48 B1 Hb ltac:(lia)), (a_erase_slots c0 h b 48 B0 Hb ltac:(lia)). reflexivity.
Qed.
Lemma a_acquire_nonblk h a :
  is_blk (hp h) -> (words h (hp h) = 0 -> is_blk (fp h)) ->
  (words h (hp h) = 0 -> words h (fp h) <> 0 ->
     (words h (fp h + 16) = 0 \/ is_blk (words h (fp h + 16))) /\
     (words h (fp h + 32) = 0 \/ is_blk (words h (fp h + 32))) /\
     (words h (fp h + 48) = 0 \/ is_blk (words h (fp h + 48)))) ->
  ~ is_blk a -> words (snd (a_acquire h)) a = words h a.
Proof.
  intros Hb Hb2 Hch Ha. unfold a_acquire.
  destruct (Z.eqb_spec (words h (hp h)) 0) as [E0|N0]; cbn [negb snd].
  - specialize (Hb2 E0). destruct (Z.eqb_spec (words h (fp h)) 0) as [F0|FN]; cbn [snd words]; [reflexivity|].
    destruct (Hch E0 FN) as (S0 & S1 & S2).
    set (hh := {| words := upd (words h) (fp h) 0; hp := fp h; fp := words h (fp h) |}).
    assert (SL : forall off, 0 < off < 64 -> words hh (fp h + off) = words h (fp h + off)).
    { intros off Ho. unfold hh. cbn [words]. unfold upd. destruct (Z.eqb_spec (fp h + off) (fp h)); [lia|reflexivity]. }
    rewrite (erase_children_eq hh (fp h) Hb2) by (rewrite SL by lia; assumption).
    rewrite !a_erase_nonblk by (rewrite ?SL by lia; assumption).
    unfold hh. cbn [words]. unfold upd. destruct (Z.eqb_spec a (fp h)); subst; [contradiction|reflexivity].
  - cbn [words]. unfold upd. destruct (Z.eqb_spec a (hp h)); subst; [contradiction|reflexivity].
Qed.

(* acquire *)
Lemma habs_acquire F h :
  is_blk (hp h) ->
  (words h (hp h) = 0 -> is_blk (fp h)) ->
  (words h (hp h) = 0 -> words h (fp h) <> 0 ->
     let h1 := {| words := upd (words h) (fp h) 0; hp := fp h; fp := words h (fp h) |} in
     let c0 := words h1 (fp h + 16) in let c1 := words h1 (fp h + 32) in let c2 := words h1 (fp h + 48) in
     child_ok h1 c0 /\ child_ok (a_erase c0 h1) c1 /\ child_ok (a_erase c1 (a_erase c0 h1)) c2) ->
  fst (a_acquire h) = fst (Heap.acquire (habs F h)) /\
  st_eqB (habs (Heap.frontier (snd (Heap.acquire (habs F h)))) (snd (a_acquire h))) (snd (Heap.acquire (habs F h))) /\
  (words h (hp h) = 0 -> words h (fp h) <> 0 ->
     children_ok (fp h) [0; 1; 2]%N {| words := upd (words h) (fp h) 0; hp := fp h; fp := words h (fp h) |}).
Proof.
  intros Hb Hb2 Hch. unfold a_acquire, Heap.acquire. cbn [habs Heap.heap Heap.m Heap.hdr Heap.free Heap.ps Heap.frontier].
  destruct (Z.eqb_spec (words h (hp h)) 0) as [E0|N0]; cbn [negb].
  - specialize (Hb2 E0). destruct (Z.eqb_spec (words h (fp h)) 0) as [F0|FN].
    + split; [reflexivity|]. split; [|intros _ C; contradiction].
      cbn [fst snd Heap.frontier]. change (field_offset Fst FIELDS_PER_BLOCK) with 64. unfold Heap.BLOCK.
      assert (WR : wrap (fp h + 64) = fp h + 64).
      { apply wrap_small. destruct Hb2 as (k & Hk & E & Hhi). unfold min_int, max_int, two63, HEAP_BASE, HEAP_SIZE in *. lia. }
      rewrite WR. repeat split; auto.
    + specialize (Hch E0 FN). cbv zeta in Hch. destruct Hch as (C0 & C1 & C2).
      set (h1 := {| words := upd (words h) (fp h) 0; hp := fp h; fp := words h (fp h) |}) in *.
      destruct (habs_erase_children F h1 (fp h) Hb2 C0 C1 C2) as [EQ CO].
      split; [reflexivity|]. split; [|intros _ _; exact CO]. cbn [fst snd].
      assert (SL : forall off, 0 < off < 64 -> words h1 (fp h + off) = words h (fp h + off)).
      { intros off Ho. unfold h1. cbn [words]. unfold upd. destruct (Z.eqb_spec (fp h + off) (fp h)); [lia|reflexivity]. }
      rewrite <- (SL 16), <- (SL 32), <- (SL 48) by lia.
      set (S1 := {| Heap.m := Heap.set_hdr _ (fp h) 0; Heap.heap := fp h; Heap.free := words h (fp h); Heap.frontier := F |}).
      assert (E1 : st_eqB (habs F h1) S1).
      { unfold S1, h1. repeat split; auto. intros x Hx. cbn [habs Heap.m words]. now apply (habs_upd_hdr F h (fp h)). }
      assert (FR : forall l a, Heap.frontier (fold_left (fun s c => Heap.erase c s) l a) = Heap.frontier a).
      { induction l as [|c l IH]; intros a; cbn [fold_left]; [reflexivity|]. rewrite IH. unfold Heap.erase.
        destruct (c =? 0); [reflexivity|]. destruct (Heap.hdr (Heap.m a c) =? 0); reflexivity. }
      rewrite FR. cbn [Heap.frontier].
      eapply st_eqB_trans; [exact EQ|].
      destruct C0 as (B0 & _), C1 as (B1 & _), C2 as (B2 & _).
      cbn [fold_left]. apply erase_st_eqB; [|exact B2]. apply erase_st_eqB; [|exact B1]. apply erase_st_eqB; [|exact B0]. exact E1.
  - split; [reflexivity|]. split; [|intros C; contradiction]. cbn [fst snd Heap.frontier].
    repeat split; auto. intros x Hx. cbn [habs Heap.m words]. now apply (habs_upd_hdr F h (hp h)).
Qed.

(* the emitted code refines the abstract allocator *)
Section Code.
Variable im : image.

Lemma abs_heap_own F s h0 f0 : rget s HEAP = Some h0 -> rget s FREE = Some f0 -> st_eqB (abs_heap F s) (habs F (own_heap s)).
Proof. intros A B. apply represents_abs. eapply represents_own; eauto. Qed.

Theorem rv_share_block_heap i t n lc s p F h0 f0 :
  placed im i (fst (r_share_block_n t n lc)) ->
  t <> ZERO -> t <> TEMP -> t <> HEAP -> t <> FREE ->
  rget s HEAP = Some h0 -> rget s FREE = Some f0 ->
  rget s t = Some p -> (p = 0 \/ is_blk p) -> fits12 (Z.of_N n) = true ->
  (p <> 0 -> min_int <= hword s p + Z.of_N n <= max_int) ->
  exists s',
    star im i s (padd i (List.length (fst (r_share_block_n t n lc)))) s' /\
    st_eqB (abs_heap F s') (Heap.share p (Z.of_N n) (abs_heap F s)) /\
    (forall r, r <> TEMP -> rget s' r = rget s r) /\
    (forall a, ~ is_blk a -> hword s' a = hword s a).
Proof.
  intros PL T0 T1 T2 T3 HH HF HP PB FI NW.
  pose proof (represents_own s h0 f0 HH HF) as RP.
  destruct (rv_share_block_n_refines im i t n lc s _ p PL T0 T1 T2 T3 RP HP (ptr_valid p PB) FI) as (s' & ST & RP' & KR).
  exists s'. split; [exact ST|]. split; [|split; [exact KR|intros a Ha; destruct RP' as (W & _); rewrite W; now apply a_share_nonblk]].
  eapply st_eqB_trans; [apply (represents_abs F _ _ RP')|].
  eapply st_eqB_trans; [apply habs_share; [exact PB|exact NW]|].
  apply share_st_eqB; [|exact PB]. apply st_eqB_sym. eapply abs_heap_own; eauto.
Qed.

Theorem rv_erase_block_heap i t lc s p F h0 f0 :
  placed im i (fst (r_erase_block t lc)) ->
  t <> ZERO -> t <> TEMP -> t <> HEAP -> t <> FREE ->
  rget s HEAP = Some h0 -> rget s FREE = Some f0 ->
  rget s t = Some p -> (p = 0 \/ is_blk p) ->
  (p <> 0 -> hword s p <> 0 -> min_int <= hword s p - 1 <= max_int) ->
  exists s',
    star im i s (padd i (List.length (fst (r_erase_block t lc)))) s' /\
    st_eqB (abs_heap F s') (Heap.erase p (abs_heap F s)) /\
    (forall r, r <> TEMP -> r <> FREE -> rget s' r = rget s r) /\
    (forall a, ~ is_blk a -> hword s' a = hword s a) /\
    (exists f', rget s' FREE = Some f').
Proof.
  intros PL T0 T1 T2 T3 HH HF HP PB NW.
  pose proof (represents_own s h0 f0 HH HF) as RP.
  destruct (rv_erase_block_refines im i t lc s _ p PL T0 T1 T2 T3 RP HP (ptr_valid p PB)) as (s' & ST & RP' & KR).
  exists s'. split; [exact ST|]. split; [|split; [exact KR|split; [intros a Ha; destruct RP' as (W & _); rewrite W; now apply a_erase_nonblk|destruct RP' as (_ & _ & X); eauto]]].
  eapply st_eqB_trans; [apply (represents_abs F _ _ RP')|].
  eapply st_eqB_trans; [apply habs_erase; [exact PB|exact NW]|].
  apply erase_st_eqB; [|exact PB]. apply st_eqB_sym. eapply abs_heap_own; eauto.
Qed.

Theorem rv_release_block_heap i t s b F h0 f0 :
  placed im i (release_block t) ->
  t <> ZERO -> t <> HEAP ->
  rget s HEAP = Some h0 -> rget s FREE = Some f0 ->
  rget s t = Some b -> is_blk b ->
  exists s',
    star im i s (padd i 2) s' /\
    st_eqB (abs_heap F s') (Heap.release b (abs_heap F s)) /\
    (forall r, r <> HEAP -> rget s' r = rget s r).
Proof.
  intros PL T0 T2 HH HF HB BB.
  pose proof (represents_own s h0 f0 HH HF) as RP.
  destruct (rv_release_block_refines im i t s _ b PL T0 T2 RP HB (is_blk_valid_addr b BB)) as (s' & ST & RP' & KR).
  exists s'. split; [exact ST|]. split; [|exact KR].
  eapply st_eqB_trans; [apply (represents_abs F _ _ RP')|].
  eapply st_eqB_trans; [apply habs_release; exact BB|].
  apply release_st_eqB; [|exact BB]. apply st_eqB_sym. eapply abs_heap_own; eauto.
Qed.

(* acquire_block: the block handed out is the one `Heap.acquire` hands out, the abstract state afterwards is
   `Heap.acquire`'s (with its frontier: in the bump case the frontier moves by one block) *)
Lemma acquire_st_eqB a b :
  st_eqB a b -> is_blk (Heap.heap b) -> (Heap.hdr (Heap.m b (Heap.heap b)) = 0 -> is_blk (Heap.free b)) ->
  (Heap.hdr (Heap.m b (Heap.heap b)) = 0 -> Heap.hdr (Heap.m b (Heap.free b)) <> 0 ->
     forall c, In c (Heap.ps (Heap.m b (Heap.free b))) -> c = 0 \/ is_blk c) ->
  fst (Heap.acquire a) = fst (Heap.acquire b) /\ st_eqB (snd (Heap.acquire a)) (snd (Heap.acquire b)).
Proof.
  intros (A1 & A2 & A3 & A4) HB FB CB. unfold Heap.acquire. rewrite A1, A2, A3, (A4 _ HB).
  destruct (Z.eqb_spec (Heap.hdr (Heap.m b (Heap.heap b))) 0) as [E0|N0]; cbn [negb].
  - specialize (FB E0). specialize (CB E0). rewrite (A4 _ FB). destruct (Z.eqb_spec (Heap.hdr (Heap.m b (Heap.free b))) 0) as [F0|FN].
    + split; [reflexivity|]. repeat split; auto.
    + specialize (CB FN). split; [reflexivity|]. cbn [snd].
      assert (G : forall l sa sb, st_eqB sa sb -> (forall c, In c l -> c = 0 \/ is_blk c) ->
                st_eqB (fold_left (fun s c => Heap.erase c s) l sa) (fold_left (fun s c => Heap.erase c s) l sb)).
      { induction l as [|c l IH]; intros sa sb E H; cbn [fold_left]; [exact E|].
        apply IH; [apply erase_st_eqB; [exact E|apply H; now left]|intros; apply H; now right]. }
      apply G; [|exact CB]. repeat split; auto. intros x Hx. cbn [Heap.m]. unfold Heap.set_hdr, Heap.upd.
      destruct (x =? Heap.free b); [now rewrite (A4 _ FB)|apply A4; exact Hx].
  - split; [reflexivity|]. repeat split; auto. intros x Hx. cbn [snd Heap.m]. unfold Heap.set_hdr, Heap.upd.
    destruct (x =? Heap.heap b); [now rewrite ?(A4 _ HB)|apply A4; exact Hx].
Qed.

Theorem rv_acquire_block_heap i t t2 lc s F rv h2 :
  placed im i (fst (acquire_block t t2 lc)) ->
  t <> ZERO -> t <> TEMP -> t <> HEAP -> t <> FREE ->
  t2 <> ZERO -> t2 <> TEMP -> t2 <> HEAP -> t2 <> FREE -> t <> t2 ->
  rget s HEAP = Some rv -> is_blk rv -> rget s FREE = Some h2 ->
  (hword s rv = 0 -> is_blk h2) ->
  (hword s rv = 0 -> hword s h2 <> 0 ->
     let h1 := {| words := upd (hword s) h2 0; hp := h2; fp := hword s h2 |} in
     let c0 := words h1 (h2 + 16) in let c1 := words h1 (h2 + 32) in let c2 := words h1 (h2 + 48) in
     child_ok h1 c0 /\ child_ok (a_erase c0 h1) c1 /\ child_ok (a_erase c1 (a_erase c0 h1)) c2) ->
  exists s',
    star im i s (padd i (List.length (fst (acquire_block t t2 lc)))) s' /\
    st_eqB (abs_heap (Heap.frontier (snd (Heap.acquire (abs_heap F s)))) s') (snd (Heap.acquire (abs_heap F s))) /\
    rget s' t = Some rv /\ fst (Heap.acquire (abs_heap F s)) = rv /\
    (forall r, r <> t -> r <> t2 -> r <> TEMP -> r <> HEAP -> r <> FREE -> rget s' r = rget s r).
Proof.
  intros PL T0 T1 T2 T3 U0 U1 U2 U3 TU HH HB HF HB2 HCH.
  pose proof (represents_own s rv h2 HH HF) as RP.
  set (h := own_heap s) in *.
  assert (EH : hp h = rv) by (unfold h, own_heap, reg_or0; cbn [hp]; now rewrite HH).
  assert (EF : fp h = h2) by (unfold h, own_heap, reg_or0; cbn [fp]; now rewrite HF).
  assert (EW : words h = hword s) by reflexivity.
  destruct (habs_acquire F h) as (AF & AS & CO).
  { rewrite EH. exact HB. }
  { rewrite EH, EF, EW. exact HB2. }
  { rewrite EH, EF, EW. exact HCH. }
  destruct (rv_acquire_block_refines im i t t2 lc s h PL T0 T1 T2 T3 U0 U1 U2 U3 TU RP) as (s' & ST & RP' & RT & KR).
  { rewrite EH. now apply is_blk_valid_addr. }
  { rewrite EH, EF, EW. intros E. apply is_blk_valid_block. now apply HB2. }
  { exact CO. }
  pose proof (abs_heap_own F s rv h2 HH HF) as EO. fold h in EO.
  assert (CB : forall c, In c (Heap.ps (Heap.m (habs F h) (Heap.free (habs F h)))) -> hword s rv = 0 -> hword s h2 <> 0 -> c = 0 \/ is_blk c).
  { intros c Hc E0 FN. specialize (HCH E0 FN). cbv zeta in HCH. destruct HCH as ((B0 & _) & (B1 & _) & (B2 & _)).
    cbn [habs Heap.free Heap.m Heap.ps] in Hc. rewrite EF, EW in Hc.
    assert (SL : forall off, 0 < off < 64 -> upd (hword s) h2 0 (h2 + off) = hword s (h2 + off)).
    { intros off Ho. unfold upd. destruct (Z.eqb_spec (h2 + off) h2); [lia|reflexivity]. }
    cbn [words] in B0, B1, B2. rewrite SL in B0, B1, B2 by lia.
    destruct Hc as [<-|[<-|[<-|[]]]]; assumption. }
  (* Heap.acquire on abs_heap F s and on habs F h agree *)
  assert (AQ : fst (Heap.acquire (abs_heap F s)) = fst (Heap.acquire (habs F h)) /\
               st_eqB (snd (Heap.acquire (abs_heap F s))) (snd (Heap.acquire (habs F h)))).
  { split; [reflexivity|apply st_eqB_refl]. }
  destruct AQ as (AQ1 & AQ2).
  exists s'. split; [exact ST|]. split; [|split; [|split; [|exact KR]]].
  - assert (FE : Heap.frontier (snd (Heap.acquire (abs_heap F s))) = Heap.frontier (snd (Heap.acquire (habs F h)))) by (destruct AQ2 as (_ & _ & E & _); exact E).
    rewrite FE. eapply st_eqB_trans; [apply (represents_abs _ _ _ RP')|].
    eapply st_eqB_trans; [exact AS|]. apply st_eqB_sym. exact AQ2.
  - rewrite RT. f_equal. unfold a_acquire. rewrite EH. destruct (negb _); [reflexivity|]. destruct (_ =? 0); reflexivity.
  - rewrite AQ1, <- AF. unfold a_acquire. rewrite EH. destruct (negb _); [reflexivity|]. destruct (_ =? 0); reflexivity.
Qed.
End Code.
