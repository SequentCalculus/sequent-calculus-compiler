(* C06, forward simulation for HEAP statements: the state relation between a configuration of the
   heap-instrumented linear machine (Sem/AxHeap.v: environment entries carry the block pointer, the abstract
   allocator state evolves by Heap.step) and a state of Sem/X86Sem.v.

     xrep w v q a     the value v is represented by the pointer word q and the data word a in the heap
                      words w: an integer z is (0, z); an object is (pointer to its fields, 5 * position of
                      its tag in the declaration: the jump-table offset `b_jump_length`); a closure is
                      (pointer to its captured environment, address of its code: `CLO`); the fields sit in
                      the slots `waddrs` of a chain of blocks (pointer word at a, data word at a + 8), the
                      unused leading slots of the head block hold null pointers; no field: pointer 0;
     hvrep            position i of the environment: an `ext i64` variable has its value in the SECOND
                      temporary; every other variable has the block pointer of the machine's entry in the
                      FIRST and the data word in the SECOND temporary;
     hrel             frame as in Proof/X86SimRel.v, HEAP / FREE registers = reuse list / deferred list of
                      the abstract state, `abs_heap` = the abstract state up to zero padding (`heq`). *)
From Coq Require Import List ZArith NArith String Bool Lia FMapPositive.
From SCC Require Import Proof.X86Mem Proof.X86MemFrame Proof.X86MemLoad.
From SCC Require Proof.X86MemStoreFull Proof.X86HFrame Proof.HRep.
From SCC Require Import Base.Sexp Lang.AxSyn Sem.AxSem Sem.AxHeap Model.ParMoves Model.Backend Model.X86 Sem.X86Sem Sem.X86Wf
     Generated.Constants Proof.X86State Proof.X86Sel Proof.X86Exec Proof.X86ParMoves Proof.SubstGraph Proof.X86Subst
     Proof.X86SimRel Proof.X86HeapDefs.
From SCC Require Model.Heap.
Import ListNotations.
Open Scope Z_scope.
Open Scope list_scope.

Notation mtpos := X86MemFrame.tpos.
Notation kept := HRep.kept.

(* the typing context a captured environment stands for (names of the annotation, kinds and types of the values) *)
Definition ctx_of_env (ce : list (ident * value)) : ctx :=
  map (fun xv : ident * value => mkb (fst xv) (chi_of (snd xv)) (ty_of (snd xv))) ce.

Section HRel.
Variable types : list tydecl.
(* what the data word of a closure points to: (address, type name, clauses, captured context) *)
Variable CLO : Z -> ident -> list clause -> ctx -> Prop.

(* the fields of an object have the kinds and types its constructor declares *)
Definition same_kinds (fs : list value) (sg : ctx) : Prop :=
  Forall2 (fun f b => chi_of f = bchi b /\ ty_of f = bty b) fs sg.
Definition tag_word (tn tag : ident) (fs : list value) (a : Z) : Prop :=
  exists d k x, find (fun d => ident_eqb (tname d) tn) types = Some d /\
              xtor_position (txtors d) tag 0 = Ok k /\ a = jump_length k /\
              find (fun x => ident_eqb (xname x) tag) (txtors d) = Some x /\ same_kinds fs (xargs x).

Inductive xrep (w : Z -> Z) : value -> Z -> Z -> Prop :=
| xr_int z : xrep w (VInt z) 0 z
| xr_obj tn tag fs q a : tag_word tn tag fs a -> xflds w fs q -> xrep w (VObj tn tag fs) q a
| xr_clo tn cls ce q a : CLO a tn cls (ctx_of_env ce) -> xflds w (map snd ce) q -> xrep w (VClo tn cls ce) q a
with xflds (w : Z -> Z) : list value -> Z -> Prop :=
| xf_nil : xflds w [] 0
| xf_cons fs q :
    fs <> [] ->
    Forall is_blk (wblocks (Heap.nlinks (List.length fs)) w q) ->
    (forall j, (j < List.length (waddrs (Heap.nlinks (List.length fs)) w q) - List.length fs)%nat ->
       w (nth j (waddrs (Heap.nlinks (List.length fs)) w q) 0) = 0) ->
    xreps w fs (skipn (List.length (waddrs (Heap.nlinks (List.length fs)) w q) - List.length fs)
                      (waddrs (Heap.nlinks (List.length fs)) w q)) ->
    xflds w fs q
with xreps (w : Z -> Z) : list value -> list Z -> Prop :=
| xs_nil : xreps w [] []
| xs_cons v vs a al : xrep w v (w a) (w (a + 8)) -> xreps w vs al -> xreps w (v :: vs) (a :: al).

Scheme xrep_ind3 := Induction for xrep Sort Prop
  with xflds_ind3 := Induction for xflds Sort Prop
  with xreps_ind3 := Induction for xreps Sort Prop.
Combined Scheme xrep_mutind from xrep_ind3, xflds_ind3, xreps_ind3.

(* The three predicates are those of Proof/HRep.v at the x86-64 jump-table offsets, with nothing said of integers;
   what is proved there about a representation is carried over. *)
Local Notation gxrep := (HRep.xrep types CLO jump_length (fun _ => True)).
Local Notation gxflds := (HRep.xflds types CLO jump_length (fun _ => True)).
Local Notation gxreps := (HRep.xreps types CLO jump_length (fun _ => True)).
Lemma to_HRep w :
  (forall v q a, xrep w v q a -> gxrep w v q a) /\ (forall fs q, xflds w fs q -> gxflds w fs q) /\
  (forall vs al, xreps w vs al -> gxreps w vs al).
Proof. apply xrep_mutind; intros; constructor; auto. Qed.
Lemma of_HRep w :
  (forall v q a, gxrep w v q a -> xrep w v q a) /\ (forall fs q, gxflds w fs q -> xflds w fs q) /\
  (forall vs al, gxreps w vs al -> xreps w vs al).
Proof. apply HRep.xrep_mutind; intros; constructor; auto. Qed.

Lemma xreps_length w vs al : xreps w vs al -> List.length al = List.length vs.
Proof. induction 1; cbn; auto. Qed.
Lemma xreps_nth w vs al : xreps w vs al -> forall i v, nth_error vs i = Some v ->
  exists a, nth_error al i = Some a /\ xrep w v (w a) (w (a + 8)).
Proof.
  intros H i v Hi. destruct (HRep.xreps_nth _ _ _ _ _ _ _ (proj2 (proj2 (to_HRep w)) _ _ H) i v Hi) as (a & Ha & X).
  exists a. split; [exact Ha|exact (proj1 (of_HRep w) _ _ _ X)].
Qed.
Lemma xreps_intro w : forall vs al, List.length al = List.length vs ->
  (forall i v a, nth_error vs i = Some v -> nth_error al i = Some a -> xrep w v (w a) (w (a + 8))) -> xreps w vs al.
Proof.
  intros vs al L H. apply (proj2 (proj2 (of_HRep w))), HRep.xreps_intro; [exact L|].
  intros i v a Hv Ha. exact (proj1 (to_HRep w) _ _ _ (H i v a Hv Ha)).
Qed.

(* a representation survives every change of block headers *)
Lemma xrep_ext w w' v q a : (forall a, ~ is_blk a -> w' a = w a) -> xrep w v q a -> xrep w' v q a.
Proof. intros E X. exact (proj1 (of_HRep w') _ _ _ (HRep.xrep_ext _ _ _ _ w w' v q a E (proj1 (to_HRep w) _ _ _ X))). Qed.
Lemma xflds_ext w w' fs q : (forall a, ~ is_blk a -> w' a = w a) -> xflds w fs q -> xflds w' fs q.
Proof. intros E X. exact (proj1 (proj2 (of_HRep w')) _ _ (HRep.xflds_ext _ _ _ _ w w' fs q E (proj1 (proj2 (to_HRep w)) _ _ X))). Qed.

(* the pointer word of a represented value is null or a block of the heap region *)
Lemma xflds_ptr w fs q : xflds w fs q -> q = 0 \/ is_blk q.
Proof. intros X. exact (HRep.xflds_ptr _ _ _ _ w fs q (proj1 (proj2 (to_HRep w)) _ _ X)). Qed.
Lemma xrep_ptr w v q a : xrep w v q a -> q = 0 \/ is_blk q.
Proof. intros X. exact (HRep.xrep_ptr _ _ _ _ w v q a (proj1 (to_HRep w) _ _ _ X)). Qed.
Lemma xflds_nil_inv w q : xflds w [] q -> q = 0.
Proof. inversion 1; [reflexivity|congruence]. Qed.
Lemma xflds_cons_inv w fs q : xflds w fs q -> fs <> [] ->
  is_blk q /\ Forall is_blk (wblocks (Heap.nlinks (List.length fs)) w q) /\
  (forall j, (j < List.length (waddrs (Heap.nlinks (List.length fs)) w q) - List.length fs)%nat ->
     w (nth j (waddrs (Heap.nlinks (List.length fs)) w q) 0) = 0) /\
  xreps w fs (skipn (List.length (waddrs (Heap.nlinks (List.length fs)) w q) - List.length fs)
                    (waddrs (Heap.nlinks (List.length fs)) w q)).
Proof.
  intros X NE. destruct (HRep.xflds_cons_inv _ _ _ _ w fs q (proj1 (proj2 (to_HRep w)) _ _ X) NE) as (A & B & C & D).
  split; [exact A|]. split; [exact B|]. split; [exact C|exact (proj2 (proj2 (of_HRep w)) _ _ D)].
Qed.

(* a representation survives every change of the heap words that leaves the non-header words of the blocks reachable
   from its pointer alone (what a store into freshly acquired blocks does) *)
Lemma xrep_frame hs w w' :
  X86HFrame.slots_agree (Heap.m hs) w -> forall v q a, xrep w v q a -> HRep.kept hs w w' q -> xrep w' v q a.
Proof. intros AG v q a X K. exact (proj1 (of_HRep w') _ _ _ (HRep.xrep_frame _ _ _ _ hs w w' AG v q a (proj1 (to_HRep w) _ _ _ X) K)). Qed.

Inductive hvrep (s : xstate) (sp : Z) (i : nat) : binding -> value -> Z -> Prop :=
| hv_int b z q t :
    bchi b = Ext -> bty b = I64 -> xtpos Snd i = Ok t -> lget s sp t = Some z -> hvrep s sp i b (VInt z) q
| hv_ptr b v q a t1 t2 :
    bchi b <> Ext -> chi_of v = bchi b -> ty_of v = bty b ->
    xtpos Fst i = Ok t1 -> xtpos Snd i = Ok t2 -> lget s sp t1 = Some q -> lget s sp t2 = Some a ->
    xrep (hword s) v q a -> hvrep s sp i b v q.

Record hrel (c : ctx) (he : henv) (hs : Heap.st) (s : xstate) (sp : Z) : Prop := mk_hrel {
  hr_frame : frame_ok s sp;
  hr_align : sp mod 16 = 8;
  hr_room : STACK_LIMIT + 128 <= sp;
  hr_heapreg : rget s HEAP = Some (Heap.heap hs);
  hr_freereg : rget s FREE = Some (Heap.free hs);
  hr_heq : heq (abs_heap (Heap.frontier hs) s) hs;
  hr_ids : env_ids (erase_env he) = ids c;
  hr_nodup : NoDup (ids c);
  hr_vals : forall i x v q, nth_error he i = Some (x, v, q) -> exists b, nth_error c i = Some b /\ hvrep s sp i b v q
}.

Lemma hrel_length c he hs s sp : hrel c he hs s sp -> List.length he = List.length c.
Proof.
  intros R. pose proof (hr_ids _ _ _ _ _ R) as H. apply (f_equal (@List.length N)) in H.
  unfold env_ids, ids, erase_env in H. now rewrite !map_length in H.
Qed.

Lemma hword_heap s s' a : heap s' = heap s -> hword s' a = hword s a.
Proof. intros E. unfold hword. now rewrite E. Qed.

Lemma hvrep_keep s s' sp i b v q :
  heap s' = heap s ->
  (forall n t, allowed n b -> xtpos n i = Ok t -> lget s' sp t = lget s sp t) -> hvrep s sp i b v q -> hvrep s' sp i b v q.
Proof.
  intros HE K V. destruct V as [b z q t A B T L|b v q a t1 t2 A K1 K2 T1 T2 L1 L2 X].
  - eapply hv_int; eauto. rewrite (K Snd _ (or_introl eq_refl) T). exact L.
  - assert (AL : forall n, allowed n b) by (intros n; right; exact A).
    apply (hv_ptr s' sp i b v q a t1 t2); auto.
    + rewrite (K Fst t1 (AL Fst) T1). exact L1.
    + rewrite (K Snd t2 (AL Snd) T2). exact L2.
    + apply (xrep_ext (hword s) (hword s')); [intros a0 _; apply hword_heap; exact HE|exact X].
Qed.
Lemma hvrep_kind s sp i b b' v q : bchi b' = bchi b -> bty b' = bty b -> hvrep s sp i b v q -> hvrep s sp i b' v q.
Proof.
  intros K T V. destruct V as [b z q t A B T0 L|b v q a t1 t2 A K1 K2 T1 T2 L1 L2 X].
  - eapply hv_int; eauto; congruence.
  - eapply hv_ptr; eauto; congruence.
Qed.

Lemma heq_same_heap F s s' hs :
  heap s' = heap s -> rget s' HEAP = rget s HEAP -> rget s' FREE = rget s FREE ->
  heq (abs_heap F s) hs -> heq (abs_heap F s') hs.
Proof.
  intros HE RH RF. apply heq_eqB. unfold abs_heap, reg_or0. rewrite RH, RF.
  split; [reflexivity|]. split; [reflexivity|]. split; [reflexivity|].
  intros x _. unfold abs_mem. cbn [Heap.m]. now rewrite !(hword_heap s s') by exact HE.
Qed.

(* a state change that keeps the heap, the allocator registers and every live variable location keeps the relation *)
Lemma hrel_keep c he hs s s' sp :
  hrel c he hs s sp -> frame_ok s' sp -> heap s' = heap s ->
  rget s' HEAP = rget s HEAP -> rget s' FREE = rget s FREE ->
  (forall i b n t, nth_error c i = Some b -> allowed n b -> xtpos n i = Ok t -> lget s' sp t = lget s sp t) ->
  hrel c he hs s' sp.
Proof.
  intros R F HE RH RF K. destruct R as [F0 Al Ro Hr Fr HQ Ids ND Vals]. split; auto.
  - now rewrite RH.
  - now rewrite RF.
  - eapply heq_same_heap; eauto.
  - intros i x v q Hn. destruct (Vals i x v q Hn) as (b & Hb & V). exists b. split; [exact Hb|].
    eapply hvrep_keep; [exact HE| |exact V]. intros n t AL T. apply (K i b n t); auto.
Qed.

(* reading an integer operand *)
Lemma hlookup_nth (he : henv) x v :
  AxSem.lookup (erase_env he) x = Some v -> exists i y q, nth_error he i = Some (y, v, q) /\ idn y = x.
Proof.
  induction he as [|[[y w] q] he IH]; cbn; [discriminate|].
  destruct (N.eqb_spec (idn y) x) as [E|E].
  - intros H; inversion H; subst. exists O, y, q. cbn. auto.
  - intros H. destruct (IH H) as (i & y' & q' & Hn & Hy). exists (S i), y', q'. cbn. auto.
Qed.
Lemma henv_ctx_nth c (he : henv) i y v q :
  env_ids (erase_env he) = ids c -> nth_error he i = Some (y, v, q) -> exists b, nth_error c i = Some b /\ idn (bvar b) = idn y.
Proof.
  intros E H. apply (env_ctx_nth c (erase_env he) i y v E).
  unfold erase_env. now rewrite (map_nth_error _ _ _ H).
Qed.
Lemma hrel_lookup c he hs s sp a x :
  hrel c he hs s sp -> lookup_int (erase_env he) a = Some x ->
  exists i b t, nth_error c i = Some b /\ idn (bvar b) = idn a /\ xtpos Snd i = Ok t /\ lget s sp t = Some x.
Proof.
  intros R H. unfold lookup_int, lookup_id in H.
  destruct (AxSem.lookup (erase_env he) (idn a)) as [[z| |]|] eqn:L; try discriminate.
  inversion H; subst z. destruct (hlookup_nth he (idn a) (VInt x) L) as (i & y & q & Hn & Hy).
  destruct (henv_ctx_nth c he i y _ q (hr_ids _ _ _ _ _ R) Hn) as (b & Hb & Eb).
  destruct (hr_vals _ _ _ _ _ R i y _ q Hn) as (b' & Hb' & V). assert (b' = b) by congruence. subst b'.
  inversion V; subst.
  - exists i, b, t. repeat split; auto. congruence.
  - match goal with K : chi_of (VInt x) = bchi b |- _ => cbn in K end. congruence.
Qed.
(* an integer operand: the position of its variable, the temporary the code generator reads, and the value there *)
Lemma hrel_operand_app c c' he hs s sp a x t :
  hrel c he hs s sp -> NoDup (ids (c ++ c')) -> lookup_int (erase_env he) a = Some x ->
  variable_temporary x86_backend Snd (c ++ c') (idn a) = Ok t ->
  exists i, (i < List.length c)%nat /\ xtpos Snd i = Ok t /\ lget s sp t = Some x.
Proof.
  intros R ND LA TA. destruct (hrel_lookup c he hs s sp a x R LA) as (i & b & t' & Hi & Ei & Ti & Vi).
  rewrite <- Ei, (vt_of_nth c c' i b ND Hi), Ti in TA. injection TA as <-.
  exists i. split; [apply nth_error_Some; congruence|auto].
Qed.
Lemma hrel_operand c he hs s sp a x t :
  hrel c he hs s sp -> lookup_int (erase_env he) a = Some x -> variable_temporary x86_backend Snd c (idn a) = Ok t ->
  exists i, (i < List.length c)%nat /\ xtpos Snd i = Ok t /\ lget s sp t = Some x.
Proof.
  intros R LA TA. apply (hrel_operand_app c [] he hs s sp a x t R); rewrite ?app_nil_r; auto. exact (hr_nodup _ _ _ _ _ R).
Qed.

(* extending the environment by a new last integer variable whose temporary has been written *)
Lemma hrel_push c he hs s s' sp v z t :
  hrel c he hs s sp -> NoDup (ids (c ++ [mkb v Ext I64])) ->
  xtpos Snd (List.length c) = Ok t -> lget s' sp t = Some z -> preserved s s' sp t ->
  hrel (c ++ [mkb v Ext I64]) (he ++ [(v, VInt z, 0)]) hs s' sp.
Proof.
  intros R ND Ht Hv (PR & HE & _ & F').
  pose proof (hrel_length _ _ _ _ _ R) as LEN. destruct R as [F0 Al Ro Hr Fr HQ Ids ND0 Vals].
  destruct (xtpos_ok _ _ _ Ht) as (_ & _ & _ & NF & NH).
  assert (RH : rget s' HEAP = rget s HEAP).
  { apply (PR (XR HEAP)); [cbn; discriminate|congruence|discriminate]. }
  assert (RF : rget s' FREE = rget s FREE).
  { apply (PR (XR FREE)); [cbn; discriminate|congruence|discriminate]. }
  split; auto.
  - now rewrite RH.
  - now rewrite RF.
  - eapply heq_same_heap; eauto.
  - unfold env_ids, ids, erase_env in *. rewrite !map_app. f_equal. exact Ids.
  - intros i x w q Hn. destruct (Nat.lt_ge_cases i (List.length he)) as [L|L].
    + rewrite nth_error_app1 in Hn by exact L. destruct (Vals i x w q Hn) as (b & Hb & V).
      exists b. split; [rewrite nth_error_app1 by lia; exact Hb|].
      eapply hvrep_keep; [exact HE| |exact V]. intros n t0 _ T0.
      destruct (xtpos_ok _ _ _ T0) as (A & B & _). apply PR; auto.
      intros E; subst t0. destruct (SubstGraph.tpos_inj x86_backend x86_backend_ok _ _ _ _ _ T0 Ht) as [_ E]. lia.
    + rewrite nth_error_app2 in Hn by exact L. destruct (i - List.length he)%nat as [|k] eqn:K; cbn in Hn; [|destruct k; discriminate].
      inversion Hn; subst. exists (mkb x Ext I64). split.
      * rewrite nth_error_app2 by lia. replace (i - List.length c)%nat with O by lia. reflexivity.
      * eapply hv_int; eauto. replace i with (List.length c) by lia. exact Ht.
Qed.

(* dropping the last variable *)
Lemma hrel_prefix c0 b he0 en hs s sp : hrel (c0 ++ [b]) (he0 ++ [en]) hs s sp -> hrel c0 he0 hs s sp.
Proof.
  intros R. pose proof (hrel_length _ _ _ _ _ R) as LEN. rewrite !app_length in LEN. cbn [List.length] in LEN.
  destruct R as [F Al Ro Hr Fr HQ Ids ND Vals]. split; auto.
  - unfold env_ids, ids, erase_env in *. rewrite !map_app in Ids. cbn [map] in Ids. apply app_inj_tail in Ids. tauto.
  - unfold ids in *. rewrite map_app in ND. clear -ND. induction (map (fun b => idn (bvar b)) c0) as [|x l IH]; cbn in *; [constructor|].
    inversion ND; subst. constructor; auto. intros I. apply H1. apply in_app_iff. now left.
  - intros i x v q Hi. assert (Li : (i < List.length he0)%nat) by (apply nth_error_Some; congruence).
    destruct (Vals i x v q) as (b' & Hb' & V); [rewrite nth_error_app1 by exact Li; exact Hi|].
    exists b'. split; [|exact V]. rewrite nth_error_app1 in Hb' by lia. exact Hb'.
Qed.
(* the last entry: its position, its name, its representation *)
Lemma hrel_last c0 b (he0 : henv) x v q hs s sp :
  hrel (c0 ++ [b]) (he0 ++ [(x, v, q)]) hs s sp ->
  List.length he0 = List.length c0 /\ idn x = idn (bvar b) /\ hvrep s sp (List.length c0) b v q.
Proof.
  intros R. pose proof (hrel_length _ _ _ _ _ R) as LEN. rewrite !app_length in LEN. cbn [List.length] in LEN.
  assert (L0 : List.length he0 = List.length c0) by lia. split; [exact L0|]. split.
  - pose proof (hr_ids _ _ _ _ _ R) as Ids. unfold env_ids, ids, erase_env in Ids. rewrite !map_app in Ids. cbn [map fst] in Ids.
    apply app_inj_tail in Ids as [_ E]. exact E.
  - destruct (hr_vals _ _ _ _ _ R (List.length he0) x v q) as (b0 & Hb0 & V); [apply nth_error_mid|].
    rewrite L0, nth_error_mid in Hb0. inversion Hb0; subst b0. rewrite <- L0. exact V.
Qed.

(* an object and a closure at a position: pointer in the first temporary, tag or code address in the second *)
Lemma hvrep_obj s sp i b tn tag fs q : hvrep s sp i b (VObj tn tag fs) q ->
  bty b = Decl tn /\ exists t1 t2 a, xtpos Fst i = Ok t1 /\ xtpos Snd i = Ok t2 /\ lget s sp t1 = Some q /\ lget s sp t2 = Some a /\
                                     tag_word tn tag fs a /\ xflds (hword s) fs q.
Proof.
  intros V. inversion V as [|b1 v1 q1 a t1 t2 NE K1 K2 T1 T2 L1 L2 X]; subst. inversion X; subst.
  split; [symmetry; exact K2|]. exists t1, t2, a. auto 8.
Qed.
Lemma hvrep_clo s sp i b tn cls ce q : hvrep s sp i b (VClo tn cls ce) q ->
  bty b = Decl tn /\ exists t1 t2 a, xtpos Fst i = Ok t1 /\ xtpos Snd i = Ok t2 /\ lget s sp t1 = Some q /\ lget s sp t2 = Some a /\
                                     CLO a tn cls (ctx_of_env ce) /\ xflds (hword s) (map snd ce) q.
Proof.
  intros V. inversion V as [|b1 v1 q1 a t1 t2 NE K1 K2 T1 T2 L1 L2 X]; subst. inversion X; subst.
  split; [symmetry; exact K2|]. exists t1, t2, a. auto 8.
Qed.
End HRel.

Arguments hr_frame {types CLO c he hs s sp}.
Arguments hr_align {types CLO c he hs s sp}.
Arguments hr_room {types CLO c he hs s sp}.
Arguments hr_heapreg {types CLO c he hs s sp}.
Arguments hr_freereg {types CLO c he hs s sp}.
Arguments hr_heq {types CLO c he hs s sp}.
Arguments hr_ids {types CLO c he hs s sp}.
Arguments hr_nodup {types CLO c he hs s sp}.
Arguments hr_vals {types CLO c he hs s sp}.
Arguments hrel_length {types CLO c he hs s sp}.
Arguments hrel_last {types CLO c0 b he0 x v q hs s sp}.
Arguments hvrep_obj {types CLO s sp i b tn tag fs q}.
Arguments hvrep_clo {types CLO s sp i b tn cls ce q}.
