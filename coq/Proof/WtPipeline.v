(* Proof/WtPipeline  -  the C12 composition with NO typing hypothesis left (C12_pipeline_wt):
   from the boolean guard on the checked source program (prog_tyguard) and two boolean conditions on ONE
   stage output (names_ok and decls_ok of the focused program; pre_check of the Core program is proved:
   Proof/Fun2CoreIds.v), every
   stage succeeds, every intermediate program is accepted by its checker and the three code generators
   return Ok within capacity.  Links: fun2core (Proof/Fun2CoreTyProg.v, Fun2CoreTyTotal.v), uniquify + focus
   (Proof/FocusTyTop.v), shrink (Proof/ShrinkTyTop.v), wt_ax -> prog_ok, linearize, code generation. *)
From Coq Require Import List ZArith NArith String Bool Lia.
From SCC Require Import Base.Sexp Lang.SynUtil Lang.FunSyn Lang.CoreSyn Lang.AxSyn.
From SCC Require Import Sem.FsCheck Sem.CoreCheck Sem.FsFrag2.
From SCC Require Sem.AxCheck.
From SCC Require Import Model.Fun2Core Model.Fun2CoreTyGuard Model.Backend Model.Uniquify Model.Focus Model.FocusCheck Model.FocusTyGuard
     Model.Shrink Model.Linearize Model.LinCheck Model.Capacity Model.WtDefs Model.X86 Model.A64 Model.RV.
From SCC Require Import Proof.Fun2CoreProof Proof.Fun2CoreProg Proof.Fun2CoreTyProg Proof.Fun2CoreTyTotal Proof.Fun2CoreIds Proof.FocusKont Proof.FocusTyTop
     Proof.WtPreserve Proof.ShrinkProof Proof.ShrinkTyTop Proof.AxToLin Proof.LinearizeProof
     Proof.CodegenTotal Proof.CodegenX86 Proof.CodegenA64 Proof.CodegenRV.
From SCC Require Import Proof.FocusNamesTop Proof.UqTyTop Proof.UqAeq Proof.FocusTheorems Proof.CoreTyRules.
Import ListNotations.
Open Scope list_scope.

(* the definition names of the fun2core output have id 0 *)
Lemma names_le_compiled : forall p c, compile_prog p = Fun2Core.Ok c -> names_le c = true.
Proof.
  intros p c H. unfold compile_prog, compile_prog_gen in H.
  destruct (compile_defs false _ (fcpdefs p) _ _ [] []) as [defs|?] eqn:E; simpl in H; [|discriminate].
  injection H as <-. unfold names_le. cbn [cpdefs cpmax]. apply forallb_forall. intros x Hx.
  destruct (compile_defs_cover _ _ _ _ _ _ _ _ E x Hx) as [[]|[[]|[d [ul1 [g [ul2 [Hg Hin]]]]]]].
  assert (Hn : exists gl, map cdname g = map new_id (fdname d :: gl)).
  { destruct Hg as [Hg|Hg].
    - destruct (compile_main_names _ _ _ _ _ _ Hg) as [gl [_ [_ Hm]]]. eauto.
    - destruct (compile_def_names _ _ _ _ _ _ Hg) as [gl [_ [_ Hm]]]. eauto. }
  destruct Hn as [gl Hn].
  assert (Hi : In (cdname x) (map new_id (fdname d :: gl))) by (rewrite <- Hn; apply in_map; exact Hin).
  apply in_map_iff in Hi. destruct Hi as [y [Ey _]]. rewrite <- Ey. reflexivity.
Qed.

Lemma focus_decls : forall c f, focus_prog c = Backend.Ok f -> fspdata f = cpdata c /\ fspcodata f = cpcodata c.
Proof.
  intros c f H. unfold focus_prog in H. apply rbind_ok in H. destruct H as (c1 & Eu & H).
  apply rbind_ok in H. destruct H as ([ds m] & Ef & H). okinv H. cbn [fspdata fspcodata].
  unfold uniquify_prog in Eu. apply rbind_ok in Eu. destruct Eu as ([ds1 m1] & E1 & Eu). okinv Eu. auto.
Qed.
Lemma decls_ok_xtor_tys : forall c f, focus_prog c = Backend.Ok f -> FsFrag2.decls_ok f = true -> xtor_tys_ok c = true.
Proof.
  intros c f H Hd. destruct (focus_decls c f H) as [E1 E2]. unfold FsFrag2.decls_ok in Hd. apply andb_prop in Hd. destruct Hd as [_ Hd].
  unfold xtor_tys_ok. rewrite <- E1, <- E2. exact Hd.
Qed.

(* typing preservation of Prog::focus on the output of fun2core: the side conditions about declared field
   types and definition names are discharged *)
Lemma focus_wt_of_compiled : forall p c f,
  compile_prog p = Fun2Core.Ok c -> wt_core c = true -> pre_check c = true -> focus_prog c = Backend.Ok f -> FsFrag2.decls_ok f = true ->
  wt_fs f = true /\ unique_binders f = true /\ ids_bounded f = true /\ gub f = true.
Proof.
  intros p c f Hc Hwt Hpre Hf Hd.
  exact (focus_preserves_typing_thm c f Hwt Hpre (decls_ok_xtor_tys c f Hf Hd) (names_le_compiled p c Hc) Hf).
Qed.

Theorem pipeline_wt_lemma : forall p,
  prog_tyguard p = true ->
  (forall c f, compile_prog p = Fun2Core.Ok c -> focus_prog c = Backend.Ok f -> FsFrag2.names_ok f = true /\ FsFrag2.decls_ok f = true) ->
  exists c f a,
    compile_prog p = Fun2Core.Ok c /\ wt_core c = true /\
    focus_prog c = Backend.Ok f /\ wt_fs f = true /\
    shrink_prog f = SOk a /\ AxCheck.wt_ax a = true /\ prog_ok a = true /\
    let l := linearize a in
    lin_check_prog l = true /\
    (forall lc, within_capacity_x86 l = true -> exists code lc', x86_compile l lc = Backend.Ok (code, main_arity l, lc')) /\
    (forall lc, within_capacity_a64 l = true -> exists code lc', a64_compile l lc = Backend.Ok (code, main_arity l, lc')) /\
    (forall lc, within_capacity_rv l = true -> exists code lc', rv_compile l lc = Backend.Ok (code, main_arity l, lc')).
Proof.
  intros p HG HN.
  destruct (fun2core_total_guarded p HG) as [c EC].
  pose proof (fun2core_preserves_typing_frag2 p c HG EC) as WC.
  destruct (focus_total_wt c WC) as [f EF].
  destruct (HN c f EC EF) as [NO DO].
  destruct (focus_wt_of_compiled p c f EC WC (fun2core_pre_check p c EC) EF DO) as (WF & UB & IB & GU).
  assert (FR : frag2t_prog f = true) by (unfold frag2t_prog; rewrite NO, DO, GU; reflexivity).
  destruct (shrink_total f WF) as [a EA].
  destruct (shrink_preserves_typing_frag2 f a FR WF UB IB EA) as (WA & PL & BO).
  exists c, f, a.
  split; [exact EC|]. split; [exact WC|]. split; [exact EF|]. split; [exact WF|].
  split; [exact EA|]. split; [exact WA|]. exact (wt_ax_backends_total a WA PL BO).
Qed.

(* the composition with guards on the SOURCE program only *)

Lemma xtor_tys_of_source : forall p c, compile_prog p = Fun2Core.Ok c -> xtor_tys_guard p = true -> xtor_tys_ok c = true.
Proof.
  intros p c H Hg. unfold compile_prog, compile_prog_gen in H.
  destruct (compile_defs false _ (fcpdefs p) _ _ [] []) as [defs|?]; simpl in H; [|discriminate].
  injection H as <-. exact Hg.
Qed.

(* parameter types stay declared through uniquify + focus; field types are those of the input *)
Lemma focus_decls_ok : forall c f, wt_core c = true -> pre_check c = true -> xtor_tys_ok c = true ->
  focus_prog c = Backend.Ok f -> FsFrag2.decls_ok f = true.
Proof.
  intros c f Hwt Hpre Hxt Hf. destruct (focus_decls c f Hf) as [E1 E2].
  unfold FsFrag2.decls_ok. rewrite E1, E2. apply andb_true_iff. split; [|exact Hxt].
  assert (Hids : forallb (ids_le_def (cpmax c)) (cpdefs c) = true).
  { unfold pre_check in Hpre. rewrite forallb_forall in *. intros d Hd. specialize (Hpre d Hd). unfold pre_def in Hpre.
    apply andb_true_iff in Hpre. destruct Hpre as [Hpre _]. apply andb_true_iff in Hpre. tauto. }
  unfold focus_prog in Hf. apply rbind_ok in Hf. destruct Hf as (c1 & Eu & Hf).
  pose proof (uniquify_preserves_typing c c1 Hwt Hids Eu) as Hwt1.
  apply rbind_ok in Hf. destruct Hf as ([qs M'] & Ef & Hf). okinv Hf. cbn [fspdefs].
  unfold uniquify_prog in Eu. apply rbind_ok in Eu. destruct Eu as ([ds1 m1] & E & Eu). okinv Eu.
  cbn [cpdefs cpmax cpdata cpcodata] in *.
  apply wt_core_iff, check_core_iff in Hwt1. destruct Hwt1 as (_ & _ & _ & _ & _ & C6). cbn [cpdefs] in C6.
  apply ccheck_defs_iff in C6. rewrite Forall_forall in C6.
  pose proof (focus_defs_like _ _ _ _ Ef) as Hlike.
  apply forallb_forall. intros q Hq.
  assert (Hex : exists d, In d ds1 /\ fsdctx q = cdctx d).
  { clear -Hlike Hq. induction Hlike as [|a b r r1 [_ Hc] _ IH]; [contradiction|].
    destruct Hq as [<-|Hq]; [exists a; split; [left; reflexivity | exact Hc]|].
    destruct (IH Hq) as [d [Hd Hd2]]. exists d. split; [right; exact Hd | exact Hd2]. }
  destruct Hex as [d [Hd Hctx]]. rewrite Hctx.
  destruct (C6 d Hd) as [_ [H2 _]]. exact H2.
Qed.

Theorem pipeline_wt_source_lemma : forall p,
  prog_tyguard p = true -> xtor_tys_guard p = true ->
  exists c f a,
    compile_prog p = Fun2Core.Ok c /\ wt_core c = true /\
    focus_prog c = Backend.Ok f /\ wt_fs f = true /\
    shrink_prog f = SOk a /\ AxCheck.wt_ax a = true /\ prog_ok a = true /\
    let l := linearize a in
    lin_check_prog l = true /\
    (forall lc, within_capacity_x86 l = true -> exists code lc', x86_compile l lc = Backend.Ok (code, main_arity l, lc')) /\
    (forall lc, within_capacity_a64 l = true -> exists code lc', a64_compile l lc = Backend.Ok (code, main_arity l, lc')) /\
    (forall lc, within_capacity_rv l = true -> exists code lc', rv_compile l lc = Backend.Ok (code, main_arity l, lc')).
Proof.
  intros p HG HX. apply pipeline_wt_lemma; [exact HG|]. intros c f EC EF.
  pose proof (fun2core_preserves_typing_frag2 p c HG EC) as WC.
  pose proof (fun2core_pre_check p c EC) as PC.
  split; [exact (focus_names_thm c f WC PC EF) | exact (focus_decls_ok c f WC PC (xtor_tys_of_source p c EC HX) EF)].
Qed.
