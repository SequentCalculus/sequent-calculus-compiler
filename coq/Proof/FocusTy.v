(* Focusing preserves typing (C12), as an instance of an invariant of focusing ([focus_stmt_inv]).
   Input: a Core statement typed by Sem/CoreCheck.v (lookup by the whole identifier) in a scope Gs whose
   binder ids are pairwise distinct and distinct from the binder ids of the statement (what `uniquify`
   establishes), all ids <= T <= the counter.  Output: the focused statement is typed by Sem/FsCheck.v
   (lookup by NUMERIC ID) in every scope Gt that gives the ids of Gs the same bindings ([rel]) - Gt is Gs
   plus the fresh (co)variables the enclosing `bind`s introduced.
   The named continuations of Proof/FocusKont.v are used, monotonicity of the counter comes from
   Proof/FocusMono.v. *)
From Coq Require Import List ZArith NArith String Bool Lia.
From SCC Require Import Base.Sexp Lang.SynUtil Lang.CoreSyn Sem.FsCheck Sem.CoreCheck
     Model.Backend Model.Uniquify Model.Focus Model.FocusCheck
     Proof.CoreInd Proof.SubstProof Proof.CheckLemmas Proof.FocusKont Proof.FocusMono Proof.CoreTyRules Proof.FsTyRules.
Import ListNotations.
Open Scope list_scope.
Open Scope N_scope.

(* NoDup of a selection of the segments of a concatenation *)
Ltac nd2 :=
  repeat match goal with
         | H : NoDup (_ ++ _) |- _ => apply NoDup_app_iff in H; destruct H as (? & ? & ?)
         end;
  repeat match goal with |- NoDup (_ ++ _) => apply NoDup_app_iff; split; [|split] end; auto;
  try (let x := fresh "x" in let H1 := fresh "H" in let H2 := fresh "H" in
       intros x H1 H2;
       match goal with
       | Hd : forall y, In y _ -> In y _ -> False |- _ =>
           solve [ eapply Hd; [exact H1 | repeat rewrite in_app_iff; tauto]
                 | eapply Hd; [repeat rewrite in_app_iff; tauto | exact H2]
                 | eapply Hd; repeat rewrite in_app_iff; tauto ]
       end).

(* a binder moves from the term into the scope: the ids stay pairwise distinct *)
Lemma nodup_head_scope : forall (i : N) L R, NoDup (i :: L ++ R) -> ~ In i R /\ NoDup (L ++ i :: R).
Proof.
  intros i L R H. apply NoDup_cons_iff in H. destruct H as [Hn Hd].
  apply NoDup_app_iff in Hd. destruct Hd as (N1 & N2 & N3).
  assert (Hr : ~ In i R) by (intros Hin; apply Hn; apply in_or_app; right; exact Hin).
  split; [exact Hr|]. apply NoDup_app_iff. split; [exact N1|]. split; [constructor; assumption|].
  intros x Hx [<-|Hx2]; [apply Hn; apply in_or_app; left; exact Hx | eapply N3; eauto].
Qed.
Lemma nodup_ctx_scope : forall A body (G : cctx), NoDup ((cids A ++ body) ++ cids G) -> NoDup (body ++ cids (A ++ G)).
Proof.
  intros A body G H. unfold cids in *. rewrite map_app. rewrite <- app_assoc in H.
  apply NoDup_app_iff in H. destruct H as (N1 & N2 & N3). apply NoDup_app_iff in N2. destruct N2 as (N4 & N5 & N6).
  apply NoDup_app_iff. split; [exact N4|]. split; [apply NoDup_app_iff; repeat split; auto|].
  - intros y Hy1 Hy2. eapply N3; [exact Hy1 | apply in_or_app; right; exact Hy2].
  - intros y Hy1 Hy2. apply in_app_or in Hy2. destruct Hy2 as [Hy2|Hy2]; [eapply N3; [exact Hy2 | apply in_or_app; left; exact Hy1] | eapply N6; eauto].
Qed.

Definition rel (Gs Gt : cctx) : Prop :=
  forall x b, clookup Gs x = Some b -> flookup Gt (cid_id x) = Some b.
Definition ext (m : N) (Gt Gt' : cctx) : Prop :=
  exists A, Gt' = A ++ Gt /\ forall b, In b A -> m < cid_id (cbvar b).

Lemma ext_refl : forall m G, ext m G G.
Proof. intros m G. exists []. split; [reflexivity | intros b []]. Qed.
Lemma ext_cons : forall m G b, m < cid_id (cbvar b) -> ext m G (b :: G).
Proof. intros m G b H. exists [b]. split; [reflexivity | intros b' [<-|[]]; exact H]. Qed.
Lemma ext_trans : forall m m1 G G1 G2, ext m G G1 -> ext m1 G1 G2 -> m <= m1 -> ext m G G2.
Proof.
  intros m m1 G G1 G2 [A [-> HA]] [B [-> HB]] L. exists (B ++ A). split; [rewrite app_assoc; reflexivity|].
  intros b Hb. apply in_app_or in Hb. destruct Hb as [Hb|Hb]; [specialize (HB b Hb); lia | apply HA; exact Hb].
Qed.

Lemma flookup_ext : forall m G G' i b, ext m G G' -> mem_le m (cids G) -> flookup G i = Some b -> flookup G' i = Some b.
Proof.
  intros m G G' i b [A [-> HA]] HG H. rewrite flookup_app.
  destruct (flookup A i) as [b'|] eqn:E; [|exact H]. exfalso.
  pose proof (flookup_id _ _ _ E) as Hi. apply flookup_In in E. specialize (HA b' E).
  pose proof (flookup_id _ _ _ H) as Hi2. apply flookup_In in H.
  assert (i <= m). { apply HG. rewrite <- Hi2. apply (in_map (fun b => cid_id (cbvar b))). exact H. }
  lia.
Qed.
Lemma rel_ext : forall Gs Gt Gt' m, rel Gs Gt -> ext m Gt Gt' -> mem_le m (cids Gt) -> rel Gs Gt'.
Proof. intros Gs Gt Gt' m H He Hm x b Hx. eapply flookup_ext; eauto. Qed.
Lemma rel_cons_both : forall Gs Gt vb, rel Gs Gt -> ~ In (cid_id (cbvar vb)) (cids Gs) -> rel (vb :: Gs) (vb :: Gt).
Proof.
  intros Gs Gt vb H Hn x b Hx. rewrite clookup_cons in Hx. rewrite flookup_cons.
  destruct (cident_eqb (cbvar vb) x) eqn:E.
  - apply cident_eqb_eq in E. injection Hx as <-. rewrite E, N.eqb_refl. reflexivity.
  - pose proof (clookup_var _ _ _ Hx) as Hv. pose proof (clookup_In _ _ _ Hx) as Hin.
    destruct (N.eqb (cid_id (cbvar vb)) (cid_id x)) eqn:E2; [|apply H; exact Hx].
    apply N.eqb_eq in E2. exfalso. apply Hn. rewrite E2, <- Hv. apply (in_map (fun b => cid_id (cbvar b))). exact Hin.
Qed.
Lemma rel_app_both : forall A Gs Gt, rel Gs Gt -> NoDup (cids A ++ cids Gs) -> rel (A ++ Gs) (A ++ Gt).
Proof.
  induction A as [|a r IH]; intros Gs Gt H Hnd; [exact H|]. simpl in *. inversion Hnd as [|? ? Hn Hnd']; subst.
  apply rel_cons_both; [apply IH; assumption|]. unfold cids in *. rewrite map_app. exact Hn.
Qed.
Lemma mem_le_cids_cons : forall m b G, cid_id (cbvar b) <= m -> mem_le m (cids G) -> mem_le m (cids (b :: G)).
Proof. intros m b G H1 H2 i [<-|Hi]; [exact H1 | apply H2; exact Hi]. Qed.
Lemma mem_le_cids_app : forall m A G, mem_le m (cids A) -> mem_le m (cids G) -> mem_le m (cids (A ++ G)).
Proof. intros m A G H1 H2. unfold cids. rewrite map_app. apply mem_le_app. split; assumption. Qed.

(* the scopes of a focusing step at counter m: Gt gives the ids of the source scope Gs the same bindings,
   all ids of Gs are <= T <= m and all ids of Gt are <= m *)
Definition scopes (Gs Gt : cctx) (T m : N) : Prop :=
  rel Gs Gt /\ mem_le T (cids Gs) /\ T <= m /\ mem_le m (cids Gt).
Lemma scopes_ext {Gs Gt T m Gt1 m1} :
  scopes Gs Gt T m -> ext m Gt Gt1 -> m <= m1 -> mem_le m1 (cids Gt1) -> scopes Gs Gt1 T m1.
Proof.
  intros (R & HGs & LE & HGt) He L Hm1.
  split; [exact (rel_ext _ _ _ _ R He HGt)|]. split; [exact HGs|]. split; [lia | exact Hm1].
Qed.
Lemma scopes_le {Gs Gt T m m1} : scopes Gs Gt T m -> m <= m1 -> scopes Gs Gt T m1.
Proof.
  intros (R & HGs & LE & HGt) L.
  split; [exact R|]. split; [exact HGs|]. split; [lia | eapply mem_le_mono; eauto].
Qed.
Lemma scopes_cons : forall Gs Gt T m vb,
  scopes Gs Gt T m -> ~ In (cid_id (cbvar vb)) (cids Gs) -> cid_id (cbvar vb) <= T -> scopes (vb :: Gs) (vb :: Gt) T m.
Proof.
  intros Gs Gt T m vb (R & HGs & LE & HGt) Hn Hv.
  split; [exact (rel_cons_both _ _ _ R Hn)|]. split; [apply mem_le_cids_cons; assumption|].
  split; [exact LE | apply mem_le_cids_cons; [lia | exact HGt]].
Qed.
Lemma scopes_app : forall Gs Gt T m A,
  scopes Gs Gt T m -> NoDup (cids A ++ cids Gs) -> mem_le T (cids A) -> scopes (A ++ Gs) (A ++ Gt) T m.
Proof.
  intros Gs Gt T m A (R & HGs & LE & HGt) Hnd HA.
  split; [exact (rel_app_both _ _ _ R Hnd)|]. split; [apply mem_le_cids_app; assumption|].
  split; [exact LE | apply mem_le_cids_app; [eapply mem_le_mono; eauto | exact HGt]].
Qed.

Definition clause_hdr (cl : cclause) (cl' : fsclause) : Prop :=
  match cl, cl' with CClause c x ctx _, FsClause c' x' ctx' _ => c' = c /\ x' = x /\ ctx' = ctx end.
(* a producer of i64 that is bound in G: what Op, IfC, Print and Exit take *)
Definition ibound (G : cctx) (b : cbinding) : Prop :=
  cbchi b = CPrd /\ cbty b = CI64 /\ flookup G (cid_id (cbvar b)) = Some b.
Lemma ibound_ext : forall m G G' b, ext m G G' -> mem_le m (cids G) -> ibound G b -> ibound G' b.
Proof. intros m G G' b He Hm (H1 & H2 & H3). repeat split; auto. eapply flookup_ext; eauto. Qed.

(* Focusing a typed statement yields a statement satisfying QS, for every pair of judgements QS (statements)
   and QT (terms) on focused Core that obey one rule per constructor ([R_var] ... [R_exit]); TY is what the
   rules ask of a cut's type.  Typing (below) and the naming invariant (Proof/FocusNames.v) are instances.
   The CPS of focus.rs is handled with an invariant for continuations ([GK] / [GKV]): a continuation built at
   counter m yields a QS-statement in every EXTENSION of its scope by ids above m, for every binding of the
   right kind and type that is in scope. *)
Section FocusInv.
Variables (data codata : list ctydecl) (defs : list cdef).
Notation ct := (ccheck_term data codata defs).
Notation cs := (ccheck_stmt data codata defs).
Notation arg_typed := (arg_typed data codata defs).
Notation args_typed := (args_typed data codata defs).
Notation clause_typed := (clause_typed data codata defs).
Variable TY : cty -> Prop.
Variable QS : cctx -> fsstmt -> Prop.
Variable QT : cctx -> cchi -> cty -> fsterm -> Prop.
Definition QC (G : cctx) (cl : fsclause) : Prop := match cl with FsClause _ _ ctx body => QS (ctx ++ G) body end.

Hypothesis TY_int : TY CI64.
Hypothesis TY_cut : forall ty, ty_ok data codata ty = true -> TY ty.
Hypothesis TY_xtor : forall side n d x sg,
  find_decl (match side with CPrd => data | CCns => codata end) n = Some d -> find_cxtor d x = Some sg ->
  forall b, In b (cxargs sg) -> TY (cbty b).
Hypothesis TY_def : forall f d, find (fun d => cident_eqb (cdname d) f) defs = Some d -> forall b, In b (cdctx d) -> TY (cbty b).

Hypothesis R_var : forall G v c ty, flookup G (cid_id v) = Some (mkcb v c ty) -> QT G c ty (FsXVar c v ty).
Hypothesis R_lit : forall G n, QT G CPrd CI64 (FsLit n).
Hypothesis R_op : forall G b1 o b2, ibound G b1 -> ibound G b2 -> QT G CPrd CI64 (FsOp (cbvar b1) o (cbvar b2)).
Hypothesis R_mu : forall G c v s ty, QS (mkcb v (opp c) ty :: G) s -> QT G c ty (FsMu c v s ty).
Hypothesis R_xtor : forall G side x bs n d sg,
  find_decl (match side with CPrd => data | CCns => codata end) n = Some d -> find_cxtor d x = Some sg ->
  Forall2 (farg_ok G) bs (cxargs sg) -> QT G side (CDecl n) (FsXtor side x bs (CDecl n)).
Hypothesis R_xcase : forall G side cls cls' n d,
  find_decl (match side with CPrd => codata | CCns => data end) n = Some d ->
  cclauses_match side n cls (ctxtors d) = None -> Forall2 clause_hdr cls cls' -> Forall (QC G) cls' ->
  QT G side (CDecl n) (FsXCase side cls' (CDecl n)).
Hypothesis R_cut : forall G p ty q, TY ty -> QT G CPrd ty p -> QT G CCns ty q -> QS G (FsCut p ty q).
Hypothesis R_ifc : forall G so b1 ob t e,
  ibound G b1 -> match ob with Some b2 => ibound G b2 | None => True end -> QS G t -> QS G e ->
  QS G (FsIfC so (cbvar b1) (option_map cbvar ob) t e).
Hypothesis R_print : forall G nl b next, ibound G b -> QS G next -> QS G (FsPrint nl (cbvar b) next).
Hypothesis R_call : forall G f d bs, find (fun d => cident_eqb (cdname d) f) defs = Some d ->
  Forall2 (farg_ok G) bs (cdctx d) -> QS G (FsCall f bs).
Hypothesis R_exit : forall G b, ibound G b -> QS G (FsExit (cbvar b)).

Definition GK (k : kont) (c : cchi) (ty : cty) (Gt : cctx) (m : N) : Prop :=
  forall b m1 Gt' s' m2, ext m Gt Gt' -> m <= m1 -> mem_le m1 (cids Gt') ->
    cbchi b = c -> cbty b = ty -> flookup Gt' (cid_id (cbvar b)) = Some b ->
    k b m1 = Ok (s', m2) -> QS Gt' s'.
Definition GKV (kv : kontv) (sig : cctx) (Gt : cctx) (m : N) : Prop :=
  forall bs m1 Gt' s' m2, ext m Gt Gt' -> m <= m1 -> mem_le m1 (cids Gt') ->
    Forall2 (farg_ok Gt') bs sig -> kv bs m1 = Ok (s', m2) -> QS Gt' s'.

Definition GBt (t : cterm) : Prop := forall c k m Gs Gt ty T s' m',
  bind_term c t k m = Ok (s', m') -> ct Gs c ty t = None -> TY ty -> scopes Gs Gt T m ->
  NoDup (binder_ids_term t ++ cids Gs) -> ids_le_term T t = true -> kmono k -> GK k c ty Gt m -> QS Gt s'.
Definition GFt (t : cterm) : Prop := forall c m Gs Gt ty T t' m',
  focus_term c t m = Ok (t', m') -> ct Gs c ty t = None -> scopes Gs Gt T m ->
  NoDup (binder_ids_term t ++ cids Gs) -> ids_le_term T t = true -> QT Gt c ty t'.
Definition GBa (a : carg) : Prop := forall k m Gs Gt s T s' m',
  bind_arg a k m = Ok (s', m') -> arg_typed Gs a s -> TY (cbty s) -> scopes Gs Gt T m ->
  NoDup (binder_ids_arg a ++ cids Gs) -> ids_le_arg T a = true -> kmono k -> GK k (cbchi s) (cbty s) Gt m -> QS Gt s'.
Definition GFc (cl : cclause) : Prop := forall m Gs Gt T cl' m',
  focus_clause cl m = Ok (cl', m') -> clause_typed Gs cl -> scopes Gs Gt T m ->
  NoDup (binder_ids_clause cl ++ cids Gs) -> ids_le_clause T cl = true -> QC Gt cl' /\ clause_hdr cl cl'.
Definition GFs (s : cstmt) : Prop := forall m Gs Gt T s' m',
  focus_stmt s m = Ok (s', m') -> cs Gs s = None -> scopes Gs Gt T m ->
  NoDup (binder_ids_stmt s ++ cids Gs) -> ids_le_stmt T s = true -> QS Gt s'.
Definition gsub_ok (t : cterm) : Prop :=
  match t with
  | CXtor _ _ args _ => Forall GBa args
  | COp a _ b => GBt a /\ GBt b
  | _ => True
  end.
Definition GPt (t : cterm) : Prop := GBt t /\ GFt t /\ gsub_ok t.

(* <.. | mu~ x. s> resp. <mu a. s | ..> for the fresh x (a) = m1 + 1 in front of the scope; the continuation
   runs at m2 = m1 + 1, or later when a sub-term was focused first *)
Lemma fresh_mu : forall (k : kont) c ty Gt m Gt1 m1 m2 base s' m3,
  GK k c ty Gt m -> ext m Gt Gt1 -> m <= m1 -> m1 + 1 <= m2 -> mem_le m1 (cids Gt1) ->
  k (mkcb (base, m1 + 1) c ty) m2 = Ok (s', m3) ->
  QT Gt1 (opp c) ty (FsMu (opp c) (base, m1 + 1) s' ty).
Proof.
  intros k c ty Gt m Gt1 m1 m2 base s' m3 HK He L L2 Hm Hk.
  assert (Q : QS (mkcb (base, m1 + 1) c ty :: Gt1) s').
  { eapply (HK (mkcb (base, m1 + 1) c ty) m2 (mkcb (base, m1 + 1) c ty :: Gt1) s' m3); [| | | reflexivity | reflexivity | | exact Hk].
    - refine (ext_trans m m1 _ _ _ He (ext_cons _ _ _ _) L). simpl. lia.
    - lia.
    - apply mem_le_cids_cons; [simpl; lia | eapply mem_le_mono; [exact Hm | lia]].
    - rewrite flookup_cons. simpl. rewrite N.eqb_refl. reflexivity. }
  apply R_mu. destruct c; exact Q.
Qed.

Lemma bind_many_inv : forall args, Forall GBa args -> forall kv m Gs Gt sig T s' m',
  bind_many args kv m = Ok (s', m') -> args_typed Gs args sig -> (forall b, In b sig -> TY (cbty b)) ->
  scopes Gs Gt T m -> NoDup (flat_map binder_ids_arg args ++ cids Gs) -> forallb (ids_le_arg T) args = true ->
  kvmono kv -> GKV kv sig Gt m -> QS Gt s'.
Proof.
  induction 1 as [|a r Ha Hr IH]; intros kv m Gs Gt sig T s' m' Hb Ht Hty Hsc Hnd Hid Kmono HK.
  - inversion Ht; subst. rewrite bind_many_nil in Hb. destruct Hsc as (_ & _ & _ & HGt).
    exact (HK [] m Gt s' m' (ext_refl _ _) (N.le_refl _) HGt (Forall2_nil _) Hb).
  - inversion Ht as [|? s ? sr Hs Hrs]; subst. rewrite bind_many_cons in Hb. simpl in Hnd, Hid.
    apply andb_true_iff in Hid. destruct Hid as [Hid1 Hid2]. rewrite <- app_assoc in Hnd.
    assert (Nda : NoDup (binder_ids_arg a ++ cids Gs)) by nd2.
    assert (Ndr : NoDup (flat_map binder_ids_arg r ++ cids Gs)) by nd2.
    refine (Ha (many_k r kv) m Gs Gt s T s' m' Hb Hs (Hty s (or_introl eq_refl)) Hsc Nda Hid1 (kmono_many r kv Kmono) _).
    intros b m1 Gt1 s1 m2 He L1 Hm1 Hc Htb Hfb Hk. unfold many_k in Hk.
    refine (IH (cons_kv b kv) m1 Gs Gt1 sr T s1 m2 Hk Hrs (fun b0 Hb0 => Hty b0 (or_intror Hb0)) (scopes_ext Hsc He L1 Hm1)
              Ndr Hid2 (kvmono_cons b kv Kmono) _).
    intros bs m3 Gt2 s2 m4 He2 L2 Hm2 Hbs Hk2. unfold cons_kv in Hk2.
    refine (HK (b :: bs) m3 Gt2 s2 m4 (ext_trans _ _ _ _ _ He He2 L1) _ Hm2 _ Hk2); [lia|].
    constructor; [|exact Hbs]. repeat split; auto. eapply flookup_ext; eauto.
Qed.

Lemma focus_clauses_inv : forall cls, Forall GFc cls -> forall m Gs Gt T cls' m',
  maprs focus_clause cls m = Ok (cls', m') -> Forall (clause_typed Gs) cls -> scopes Gs Gt T m ->
  NoDup (flat_map binder_ids_clause cls ++ cids Gs) -> forallb (ids_le_clause T) cls = true ->
  Forall (QC Gt) cls' /\ Forall2 clause_hdr cls cls'.
Proof.
  induction 1 as [|cl r Hc Hr IH]; intros m Gs Gt T cls' m' Hf Ht Hsc Hnd Hid; simpl in Hf.
  - okinv Hf. split; constructor.
  - rb2 Hf cl1 m1 E. rb2 Hf r1 m2 E0. okinv Hf.
    inversion Ht as [|? ? Ht1 Ht2]; subst. simpl in Hnd, Hid.
    apply andb_true_iff in Hid. destruct Hid as [Hid1 Hid2]. rewrite <- app_assoc in Hnd.
    assert (L1 : m <= m1).
    { destruct cl as [c x ctx body]. rewrite focus_clause_eq in E. rb2 E b1 mb E'. okinv E. eapply focus_stmt_mono; eauto. }
    assert (Nd1 : NoDup (binder_ids_clause cl ++ cids Gs)) by nd2.
    assert (Nd2 : NoDup (flat_map binder_ids_clause r ++ cids Gs)) by nd2.
    destruct (Hc m Gs Gt T cl1 m1 E Ht1 Hsc Nd1 Hid1) as [C1 C2].
    destruct (IH m1 Gs Gt T r1 m' E0 Ht2 (scopes_le Hsc L1) Nd2 Hid2) as [I1 I2].
    split; constructor; assumption.
Qed.

(* the parts of a typed xtor term *)
Lemma xtor_parts : forall Gs side ty c x args t', ct Gs side ty (CXtor c x args t') = None ->
  c = side /\ t' = ty /\ exists n d sg, ty = CDecl n /\
    find_decl (match side with CPrd => data | CCns => codata end) n = Some d /\ find_cxtor d x = Some sg /\
    args_typed Gs args (cxargs sg) /\ forall b, In b (cxargs sg) -> TY (cbty b).
Proof.
  intros Gs side ty c x args t' H. apply ct_xtor in H. destruct H as [-> [-> [n [d [sg [-> [Hd [Hs Ha]]]]]]]].
  split; [reflexivity|]. split; [reflexivity|]. exists n, d, sg. repeat split; auto.
  exact (TY_xtor side n d x sg Hd Hs).
Qed.

Lemma focus_inv_all : (forall t, GPt t) /\ (forall a, GBa a) /\ (forall c, GFc c) /\ (forall s, GFs s).
Proof.
  apply core_mutind.
  - (* XVar *)
    intros c0 v ty0. split; [|split; [|exact I]].
    + intros c k m Gs Gt ty T s' m' Hb Ht Hty Hsc Hnd Hid Kmono HK. rewrite bind_xvar in Hb.
      apply ct_var in Ht. destruct Ht as [-> [-> Hl]]. destruct Hsc as (Hrel & _ & _ & HGt).
      exact (HK (mkcb v c ty) m Gt s' m' (ext_refl _ _) (N.le_refl _) HGt eq_refl eq_refl (Hrel _ _ Hl) Hb).
    + intros c m Gs Gt ty T t' m' Hf Ht Hsc Hnd Hid. rewrite focus_term_xvar in Hf. okinv Hf.
      apply ct_var in Ht. destruct Ht as [-> [-> Hl]]. exact (R_var Gt v c ty (proj1 Hsc _ _ Hl)).
  - (* Lit *)
    intros n. split; [|split; [|exact I]].
    + intros c k m Gs Gt ty T s' m' Hb Ht Hty Hsc Hnd Hid Kmono HK.
      apply ct_lit in Ht. destruct Ht as [-> ->]. rewrite bind_lit in Hb. rb2 Hb sk m2 Ek. okinv Hb.
      destruct Hsc as (_ & _ & _ & HGt).
      exact (R_cut _ _ _ _ Hty (R_lit Gt n)
               (fresh_mu k CPrd CI64 Gt m Gt m (m + 1) _ sk m' HK (ext_refl _ _) (N.le_refl _) (N.le_refl _) HGt Ek)).
    + intros c m Gs Gt ty T t' m' Hf Ht Hsc Hnd Hid.
      apply ct_lit in Ht. destruct Ht as [-> ->]. simpl in Hf. okinv Hf. apply R_lit.
  - (* Op *)
    intros a o b (Ba & _ & _) (Bb & _ & _). split; [|split; [|split; assumption]].
    + intros c k m Gs Gt ty T s' m' Hb Ht Hty Hsc Hnd Hid Kmono HK.
      apply ct_op in Ht. destruct Ht as [-> [-> [Hta Htb]]]. rewrite bind_op in Hb. simpl in Hnd, Hid.
      apply andb_true_iff in Hid. destruct Hid as [Hid1 Hid2]. rewrite <- app_assoc in Hnd.
      assert (Nda : NoDup (binder_ids_term a ++ cids Gs)) by nd2.
      assert (Ndb : NoDup (binder_ids_term b ++ cids Gs)) by nd2.
      refine (Ba CPrd (opL_k b o k) m Gs Gt CI64 T s' m' Hb Hta Hty Hsc Nda Hid1 (kmono_opL b o k Kmono) _).
      intros b1 m1 Gt1 s1 m2 He L1 Hm1 Hc1 Ht1 Hf1 Hk1. unfold opL_k in Hk1.
      refine (Bb CPrd (opR_k b1 o k) m1 Gs Gt1 CI64 T s1 m2 Hk1 Htb Hty (scopes_ext Hsc He L1 Hm1) Ndb Hid2 (kmono_opR b1 o k Kmono) _).
      intros b2 m3 Gt2 s2 m4 He2 L2 Hm2 Hc2 Ht2 Hf2 Hk2. unfold opR_k in Hk2. simpl in Hk2.
      rb2 Hk2 sk mk Ek. injection Hk2 as <- <-.
      refine (R_cut _ _ _ _ Hty (R_op Gt2 b1 o b2 (ibound_ext _ _ _ _ He2 Hm1 (conj Hc1 (conj Ht1 Hf1))) (conj Hc2 (conj Ht2 Hf2)))
                (fresh_mu k CPrd CI64 Gt m Gt2 m3 (m3 + 1) _ sk mk HK (ext_trans _ _ _ _ _ He He2 L1) _ (N.le_refl _) Hm2 Ek)). lia.
    + intros c m Gs Gt ty T t' m' Hf. destruct c; discriminate.
  - (* Mu *)
    intros c0 v s ty0 IHs. split; [|split; [|exact I]].
    + intros c k m Gs Gt ty T s' m' Hb Ht Hty Hsc Hnd Hid Kmono HK.
      apply ct_mu in Ht. destruct Ht as [-> [-> Hts]]. simpl in Hnd, Hid.
      apply andb_true_iff in Hid. destruct Hid as [Hidv Hids]. apply N.leb_le in Hidv.
      destruct (nodup_head_scope _ _ _ Hnd) as [Hvn Nds].
      assert (Hsv : scopes (mkcb v (opp c) ty :: Gs) (mkcb v (opp c) ty :: Gt) T m) by (apply scopes_cons; assumption).
      assert (HGt := proj2 (proj2 (proj2 Hsc))).
      destruct c.
      * rewrite bind_mu_prd in Hb. rb2 Hb s1 m1 Es. rb2 Hb sk m2 Ek. okinv Hb.
        assert (L1 : m + 1 <= m1) by (eapply focus_stmt_mono; eauto).
        refine (R_cut _ _ _ _ Hty (R_mu _ CPrd v s1 ty _)
                  (fresh_mu k CPrd ty Gt m Gt m m1 _ sk m' HK (ext_refl _ _) (N.le_refl _) L1 HGt Ek)).
        refine (IHs (m + 1) _ _ T s1 m1 Es Hts (scopes_le Hsv _) Nds Hids). lia.
      * rewrite bind_mu_cns in Hb. rb2 Hb sk m1 Ek. rb2 Hb s1 m2 Es. okinv Hb.
        assert (L1 : m + 1 <= m1) by (eapply Kmono; eauto).
        refine (R_cut _ _ _ _ Hty
                  (fresh_mu k CCns ty Gt m Gt m (m + 1) _ sk m1 HK (ext_refl _ _) (N.le_refl _) (N.le_refl _) HGt Ek)
                  (R_mu _ CCns v s1 ty _)).
        refine (IHs m1 _ _ T s1 m' Es Hts (scopes_le Hsv _) Nds Hids). lia.
    + intros c m Gs Gt ty T t' m' Hf Ht Hsc Hnd Hid. rewrite focus_term_mu in Hf. rb2 Hf s1 m1 Es. okinv Hf.
      apply ct_mu in Ht. destruct Ht as [-> [-> Hts]]. simpl in Hnd, Hid.
      apply andb_true_iff in Hid. destruct Hid as [Hidv Hids]. apply N.leb_le in Hidv.
      destruct (nodup_head_scope _ _ _ Hnd) as [Hvn Nds].
      apply R_mu.
      refine (IHs m (mkcb v (opp c) ty :: Gs) _ T s1 m' Es Hts _ Nds Hids). apply scopes_cons; assumption.
  - (* Xtor *)
    intros c0 x args ty0 IHa. split; [|split; [|exact IHa]].
    + intros c k m Gs Gt ty T s' m' Hb Ht Hty Hsc Hnd Hid Kmono HK.
      destruct (xtor_parts _ _ _ _ _ _ _ Ht) as [-> [-> [n [d [sg [-> [Hd [Hsg [Hargs Htys]]]]]]]]].
      simpl in Hnd, Hid. destruct c.
      * rewrite bind_xtor_prd in Hb.
        refine (bind_many_inv args IHa (xtorP_kv CPrd x (CDecl n) k) m Gs Gt (cxargs sg) T s' m' Hb Hargs Htys Hsc Hnd Hid (kvmono_xtorP _ _ _ _ Kmono) _).
        intros bs m1 Gt1 s1 m2 He L1 Hm1 Hbs Hk1. unfold xtorP_kv in Hk1. simpl in Hk1.
        rb2 Hk1 sk mk Ek. injection Hk1 as <- <-.
        exact (R_cut _ _ _ _ Hty (R_xtor Gt1 CPrd x bs n d sg Hd Hsg Hbs)
                 (fresh_mu k CPrd (CDecl n) Gt m Gt1 m1 (m1 + 1) _ sk mk HK He L1 (N.le_refl _) Hm1 Ek)).
      * rewrite bind_xtor_cns in Hb.
        refine (bind_many_inv args IHa (xtorK_kv CCns x (CDecl n) k) m Gs Gt (cxargs sg) T s' m' Hb Hargs Htys Hsc Hnd Hid (kvmono_xtorK _ _ _ _ Kmono) _).
        intros bs m1 Gt1 s1 m2 He L1 Hm1 Hbs Hk1. unfold xtorK_kv in Hk1. simpl in Hk1.
        rb2 Hk1 sk mk Ek. injection Hk1 as <- <-.
        exact (R_cut _ _ _ _ Hty (fresh_mu k CCns (CDecl n) Gt m Gt1 m1 (m1 + 1) _ sk mk HK He L1 (N.le_refl _) Hm1 Ek)
                 (R_xtor Gt1 CCns x bs n d sg Hd Hsg Hbs)).
    + intros c m Gs Gt ty T t' m' Hf. discriminate.
  - (* XCase *)
    intros c0 cls ty0 IHc. split; [|split; [|exact I]].
    + intros c k m Gs Gt ty T s' m' Hb Ht Hty Hsc Hnd Hid Kmono HK.
      apply ct_xcase in Ht. destruct Ht as [-> [-> [n [d [-> [Hd [Hm Hcl]]]]]]]. simpl in Hnd, Hid.
      assert (HGt := proj2 (proj2 (proj2 Hsc))).
      destruct c.
      * rewrite bind_xcase_prd in Hb. rb2 Hb sk m2 Ek. rb2 Hb cls' m3 Ec. okinv Hb.
        assert (L1 : m <= m2) by (pose proof (Kmono _ _ _ _ Ek); lia).
        destruct (focus_clauses_inv cls IHc m2 Gs Gt T cls' m' Ec Hcl (scopes_le Hsc L1) Hnd Hid) as [F1 F2].
        exact (R_cut _ _ _ _ Hty (R_xcase Gt CPrd cls cls' n d Hd Hm F2 F1)
                 (fresh_mu k CPrd (CDecl n) Gt m Gt m (m + 1) _ sk m2 HK (ext_refl _ _) (N.le_refl _) (N.le_refl _) HGt Ek)).
      * rewrite bind_xcase_cns in Hb. rb2 Hb sk m2 Ek. rb2 Hb cls' m3 Ec. okinv Hb.
        assert (L1 : m <= m2) by (pose proof (Kmono _ _ _ _ Ek); lia).
        destruct (focus_clauses_inv cls IHc m2 Gs Gt T cls' m' Ec Hcl (scopes_le Hsc L1) Hnd Hid) as [F1 F2].
        exact (R_cut _ _ _ _ Hty (fresh_mu k CCns (CDecl n) Gt m Gt m (m + 1) _ sk m2 HK (ext_refl _ _) (N.le_refl _) (N.le_refl _) HGt Ek)
                 (R_xcase Gt CCns cls cls' n d Hd Hm F2 F1)).
    + intros c m Gs Gt ty T t' m' Hf Ht Hsc Hnd Hid. rewrite focus_term_xcase in Hf. rb2 Hf cls' m3 Ec. okinv Hf.
      apply ct_xcase in Ht. destruct Ht as [-> [-> [n [d [-> [Hd [Hm Hcl]]]]]]]. simpl in Hnd, Hid.
      destruct (focus_clauses_inv cls IHc m Gs Gt T cls' m' Ec Hcl Hsc Hnd Hid) as [F1 F2].
      exact (R_xcase Gt c cls cls' n d Hd Hm F2 F1).
  - (* Producer *)
    intros p (Bp & _ & _) k m Gs Gt s T s' m' Hb Ht Hty Hsc Hnd Hid Kmono HK.
    unfold CoreTyRules.arg_typed in Ht. destruct (cbchi s) eqn:Ec; [|contradiction]. rewrite bind_arg_prd in Hb.
    exact (Bp CPrd k m Gs Gt (cbty s) T s' m' Hb Ht Hty Hsc Hnd Hid Kmono HK).
  - (* Consumer *)
    intros p (Bp & _ & _) k m Gs Gt s T s' m' Hb Ht Hty Hsc Hnd Hid Kmono HK.
    unfold CoreTyRules.arg_typed in Ht. destruct (cbchi s) eqn:Ec; [contradiction|]. rewrite bind_arg_cns in Hb.
    exact (Bp CCns k m Gs Gt (cbty s) T s' m' Hb Ht Hty Hsc Hnd Hid Kmono HK).
  - (* Clause *)
    intros c x ctx body IHb m Gs Gt T cl' m' Hf Ht Hsc Hnd Hid.
    rewrite focus_clause_eq in Hf. rb2 Hf b1 mb Eb. okinv Hf.
    unfold CoreTyRules.clause_typed in Ht. simpl in Hnd, Hid.
    apply andb_true_iff in Hid. destruct Hid as [Hidc Hidb].
    split; [|repeat split]. unfold QC.
    refine (IHb m (ctx ++ Gs) (ctx ++ Gt) T b1 m' Eb Ht _ (nodup_ctx_scope _ _ _ Hnd) Hidb).
    apply scopes_app; [exact Hsc | rewrite <- app_assoc in Hnd; nd2 | apply forallb_leb; exact Hidc].
  - (* Cut *)
    intros p ty q (Bp & Fp & Sp) (Bq & Fq & Sq) m Gs Gt T s' m' Hf Ht Hsc Hnd Hid.
    apply cs_cut in Ht. destruct Ht as [Hty [Htp Htq]]. apply TY_cut in Hty. simpl in Hnd, Hid.
    apply andb_true_iff in Hid. destruct Hid as [Hidp Hidq]. rewrite <- app_assoc in Hnd.
    assert (Hndp : NoDup (binder_ids_term p ++ cids Gs)) by nd2.
    assert (Hndq : NoDup (binder_ids_term q ++ cids Gs)) by nd2.
    destruct (is_xtor p) eqn:Exp.
    + (* (Xtor, consumer) *)
      destruct p as [| | | |pc px pargs pty|]; try discriminate.
      destruct (xtor_parts _ _ _ _ _ _ _ Htp) as [-> [-> [n [d [sg [-> [Hd [Hsg [Hargs Htys]]]]]]]]].
      rewrite focus_cut_xtorP in Hf. simpl in Sp, Hndp, Hidp.
      refine (bind_many_inv pargs Sp (cutP_kv CPrd px (CDecl n) q) m Gs Gt (cxargs sg) T s' m' Hf Hargs Htys Hsc Hndp Hidp (kvmono_cutP _ _ _ _) _).
      intros bs m1 Gt1 s1 m2 He L1 Hm1 Hbs Hk1. unfold cutP_kv in Hk1. rb2 Hk1 q' mq Efq. okinv Hk1.
      exact (R_cut _ _ _ _ Hty (R_xtor Gt1 CPrd px bs n d sg Hd Hsg Hbs)
               (Fq CCns m1 Gs Gt1 (CDecl n) T q' m2 Efq Htq (scopes_ext Hsc He L1 Hm1) Hndq Hidq)).
    + destruct (is_xtor q) eqn:Exq.
      * (* (producer, Xtor) *)
        destruct q as [| | | |qc qx qargs qty|]; try discriminate.
        destruct (xtor_parts _ _ _ _ _ _ _ Htq) as [-> [-> [n [d [sg [-> [Hd [Hsg [Hargs Htys]]]]]]]]].
        rewrite focus_cut_xtorK in Hf; [|destruct p; try exact I; discriminate]. simpl in Sq, Hndq, Hidq.
        refine (bind_many_inv qargs Sq (cutK_kv CCns qx (CDecl n) p) m Gs Gt (cxargs sg) T s' m' Hf Hargs Htys Hsc Hndq Hidq (kvmono_cutK _ _ _ _) _).
        intros bs m1 Gt1 s1 m2 He L1 Hm1 Hbs Hk1. unfold cutK_kv in Hk1. rb2 Hk1 p' mp Efp. okinv Hk1.
        exact (R_cut _ _ _ _ Hty (Fp CPrd m1 Gs Gt1 (CDecl n) T p' m2 Efp Htp (scopes_ext Hsc He L1 Hm1) Hndp Hidp)
                 (R_xtor Gt1 CCns qx bs n d sg Hd Hsg Hbs)).
      * destruct (is_op p) eqn:Eop.
        -- (* (Op, consumer) *)
           destruct p as [| |a o b| | |]; try discriminate. destruct Sp as [Ba Bb].
           apply ct_op in Htp. destruct Htp as [_ [-> [Hta Htb]]].
           rewrite focus_cut_op in Hf; [|destruct q; try exact I; discriminate]. simpl in Hndp, Hidp.
           apply andb_true_iff in Hidp. destruct Hidp as [Hida Hidb]. rewrite <- app_assoc in Hndp.
           assert (Nda : NoDup (binder_ids_term a ++ cids Gs)) by nd2.
           assert (Ndb : NoDup (binder_ids_term b ++ cids Gs)) by nd2.
           refine (Ba CPrd (cutopL_k b o CI64 q) m Gs Gt CI64 T s' m' Hf Hta Hty Hsc Nda Hida (kmono_cutopL _ _ _ _) _).
           intros b1 m1 Gt1 s1 m2 He L1 Hm1 Hc1 Ht1 Hf1 Hk1. unfold cutopL_k in Hk1.
           assert (Hsc1 := scopes_ext Hsc He L1 Hm1).
           refine (Bb CPrd (cutopR_k b1 o CI64 q) m1 Gs Gt1 CI64 T s1 m2 Hk1 Htb Hty Hsc1 Ndb Hidb (kmono_cutopR _ _ _ _) _).
           intros b2 m3 Gt2 s2 m4 He2 L2 Hm2 Hc2 Ht2 Hf2 Hk2. unfold cutopR_k in Hk2. rb2 Hk2 q' mq Efq. okinv Hk2.
           exact (R_cut _ _ _ _ Hty (R_op Gt2 b1 o b2 (ibound_ext _ _ _ _ He2 Hm1 (conj Hc1 (conj Ht1 Hf1))) (conj Hc2 (conj Ht2 Hf2)))
                    (Fq CCns m3 Gs Gt2 CI64 T q' m4 Efq Htq (scopes_ext Hsc1 He2 L2 Hm2) Hndq Hidq)).
        -- (* (producer, consumer) *)
           rewrite focus_cut_heads in Hf; [| destruct p; try exact I; discriminate | destruct q; try exact I; discriminate].
           rb2 Hf p' m1 Efp. rb2 Hf q' m2 Efq. okinv Hf.
           assert (L1 : m <= m1) by (eapply focus_term_mono; eauto).
           exact (R_cut _ _ _ _ Hty (Fp CPrd m Gs Gt ty T p' m1 Efp Htp Hsc Hndp Hidp)
                    (Fq CCns m1 Gs Gt ty T q' m' Efq Htq (scopes_le Hsc L1) Hndq Hidq)).
  - (* IfC *)
    intros so a b t e (Ba & _ & _) IHb IHt IHe m Gs Gt T s' m' Hf Ht Hsc Hnd Hid.
    apply cs_ifc in Ht. destruct Ht as [Hta [Htb [Htt Hte]]]. rewrite focus_ifc in Hf. simpl in Hnd, Hid.
    apply andb_true_iff in Hid. destruct Hid as [Hid Hide]. apply andb_true_iff in Hid. destruct Hid as [Hid Hidt].
    apply andb_true_iff in Hid. destruct Hid as [Hida Hidb]. rewrite <- !app_assoc in Hnd.
    assert (Nda : NoDup (binder_ids_term a ++ cids Gs)) by nd2.
    assert (Ndt : NoDup (binder_ids_stmt t ++ cids Gs)) by nd2.
    assert (Nde : NoDup (binder_ids_stmt e ++ cids Gs)) by nd2.
    refine (Ba CPrd (if1_k so b t e) m Gs Gt CI64 T s' m' Hf Hta TY_int Hsc Nda Hida (kmono_if1 so b t e) _).
    intros b1 m1 Gt1 s1 m2 He L1 Hm1 Hc1 Ht1 Hf1 Hk1. unfold if1_k in Hk1.
    assert (Hsc1 := scopes_ext Hsc He L1 Hm1).
    assert (Hv1 : ibound Gt1 b1) by (repeat split; assumption).
    destruct b as [b0|].
    + destruct IHb as (Bb & _ & _).
      assert (Ndb : NoDup (binder_ids_term b0 ++ cids Gs)) by nd2.
      refine (Bb CPrd (if2_k so b1 t e) m1 Gs Gt1 CI64 T s1 m2 Hk1 Htb TY_int Hsc1 Ndb Hidb (kmono_if2 so b1 t e) _).
      intros b2 m3 Gt2 s2 m4 He2 L2 Hm2 Hc2 Ht2 Hf2 Hk2. unfold if2_k in Hk2.
      rb2 Hk2 t' mt Et. rb2 Hk2 e' me Ee. okinv Hk2.
      assert (Hsc2 := scopes_ext Hsc1 He2 L2 Hm2).
      assert (L3 : m3 <= mt) by (eapply focus_stmt_mono; eauto).
      exact (R_ifc Gt2 so b1 (Some b2) t' e' (ibound_ext _ _ _ _ He2 Hm1 Hv1) (conj Hc2 (conj Ht2 Hf2))
               (IHt m3 Gs Gt2 T t' mt Et Htt Hsc2 Ndt Hidt) (IHe mt Gs Gt2 T e' m4 Ee Hte (scopes_le Hsc2 L3) Nde Hide)).
    + rb2 Hk1 t' mt Et. rb2 Hk1 e' me Ee. okinv Hk1.
      assert (L3 : m1 <= mt) by (eapply focus_stmt_mono; eauto).
      exact (R_ifc Gt1 so b1 None t' e' Hv1 I
               (IHt m1 Gs Gt1 T t' mt Et Htt Hsc1 Ndt Hidt) (IHe mt Gs Gt1 T e' m2 Ee Hte (scopes_le Hsc1 L3) Nde Hide)).
  - (* Print *)
    intros nl a next (Ba & _ & _) IHn m Gs Gt T s' m' Hf Ht Hsc Hnd Hid.
    apply cs_print in Ht. destruct Ht as [Hta Htn]. rewrite focus_print in Hf. simpl in Hnd, Hid.
    apply andb_true_iff in Hid. destruct Hid as [Hida Hidn]. rewrite <- app_assoc in Hnd.
    assert (Nda : NoDup (binder_ids_term a ++ cids Gs)) by nd2.
    assert (Ndn : NoDup (binder_ids_stmt next ++ cids Gs)) by nd2.
    refine (Ba CPrd (print_k nl next) m Gs Gt CI64 T s' m' Hf Hta TY_int Hsc Nda Hida (kmono_print nl next) _).
    intros b1 m1 Gt1 s1 m2 He L1 Hm1 Hc1 Ht1 Hf1 Hk1. unfold print_k in Hk1. rb2 Hk1 n' mn En. okinv Hk1.
    exact (R_print Gt1 nl b1 n' (conj Hc1 (conj Ht1 Hf1))
             (IHn m1 Gs Gt1 T n' m2 En Htn (scopes_ext Hsc He L1 Hm1) Ndn Hidn)).
  - (* Call *)
    intros f args ty IHa m Gs Gt T s' m' Hf Ht Hsc Hnd Hid.
    apply cs_call in Ht. destruct Ht as [Hty [d [Hd Hargs]]]. rewrite focus_call in Hf. simpl in Hnd, Hid.
    refine (bind_many_inv args IHa (call_kv f) m Gs Gt (cdctx d) T s' m' Hf Hargs (TY_def f d Hd) Hsc Hnd Hid (kvmono_call f) _).
    intros bs m1 Gt1 s1 m2 He L1 Hm1 Hbs Hk1. unfold call_kv in Hk1. okinv Hk1. exact (R_call Gt1 f d bs Hd Hbs).
  - (* Exit *)
    intros a ty (Ba & _ & _) m Gs Gt T s' m' Hf Ht Hsc Hnd Hid.
    apply cs_exit in Ht. destruct Ht as [_ Hta]. rewrite focus_exit in Hf. simpl in Hnd, Hid.
    refine (Ba CPrd exit_k m Gs Gt CI64 T s' m' Hf Hta TY_int Hsc Hnd Hid kmono_exit _).
    intros b1 m1 Gt1 s1 m2 He L1 Hm1 Hc1 Ht1 Hf1 Hk1. unfold exit_k in Hk1. okinv Hk1.
    exact (R_exit Gt1 b1 (conj Hc1 (conj Ht1 Hf1))).
Qed.

Definition focus_stmt_inv := proj2 (proj2 (proj2 focus_inv_all)).
End FocusInv.

Section FocusTy.
Variables (data codata : list ctydecl) (defs : list cdef) (fdefs : list fsdef).
Notation ct := (ccheck_term data codata defs).
Notation cs := (ccheck_stmt data codata defs).
Notation kt := (check_term data codata fdefs).
Notation ks := (check_stmt data codata fdefs).
Notation tyok := (ty_ok data codata).

(* field types of xtors and parameter types of definitions are declared; every definition has its focused
   form with the same parameters *)
Hypothesis Hxt : forall ts n d x sg, ts = data \/ ts = codata -> find_decl ts n = Some d -> find_cxtor d x = Some sg ->
  forall b, In b (cxargs sg) -> tyok (cbty b) = true.
Hypothesis Hpt : forall f d, find (fun d => cident_eqb (cdname d) f) defs = Some d ->
  forall b, In b (cdctx d) -> tyok (cbty b) = true.
Hypothesis Hfd : forall f d, find (fun d => cident_eqb (cdname d) f) defs = Some d ->
  exists d', find (fun d' => cident_eqb (fsdname d') f) fdefs = Some d' /\ fsdctx d' = cdctx d.

Definition KVOK (kv : kontv) (sig : cctx) (Gt : cctx) (m : N) : Prop :=
  forall bs m1 Gt' s' m2, ext m Gt Gt' -> m <= m1 -> mem_le m1 (cids Gt') ->
    Forall2 (farg_ok Gt') bs sig ->
    kv bs m1 = Ok (s', m2) -> ks Gt' s' = None.

Lemma KVOK_mono : forall kv sig Gt m Gt1 m1, KVOK kv sig Gt m -> ext m Gt Gt1 -> m <= m1 -> KVOK kv sig Gt1 m1.
Proof.
  intros kv sig Gt m Gt1 m1 H He L bs m2 Gt' s' m3 He' L' Hm Hb Hk.
  eapply (H bs m2 Gt'); eauto; [eapply ext_trans; eassumption | lia].
Qed.

Lemma farg_ok_ext : forall m G G' a s, ext m G G' -> mem_le m (cids G) -> farg_ok G a s -> farg_ok G' a s.
Proof. intros m G G' a s He Hm [H1 [H2 H3]]. repeat split; auto. eapply flookup_ext; eauto. Qed.

Lemma cclauses_to_fs : forall side n cls xs, cclauses_match side n cls xs = None ->
  forall cls', Forall2 clause_hdr cls cls' ->
  clauses_match side n cls' xs = None.
Proof.
  intros side n. induction cls as [|[c x ctx body] cr IH]; intros xs H cls' HF; inversion HF as [|? cl' ? cr' Hh Hr]; subst.
  - destruct xs; [reflexivity | discriminate].
  - destruct cl' as [c' x' ctx' body']. destruct Hh as [-> [-> ->]]. destruct xs as [|sg xr]; [discriminate|].
    cbn [cclauses_match] in H. cbn [clauses_match].
    apply seqn in H. destruct H as [H1 H]. apply seqn in H. destruct H as [H2 H]. apply seqn in H. destruct H as [H3 H].
    apply seqn in H. destruct H as [_ H].
    apply seqn. split; [exact H1|]. apply seqn. split; [exact H2|]. apply seqn. split; [exact H3|]. apply IH; assumption.
Qed.

Lemma typed_cns_not_op : forall Gs ty t, ct Gs CCns ty t = None -> is_op t = false.
Proof. intros Gs ty t H. destruct t; try reflexivity. apply ct_op in H. destruct H as [H _]. discriminate. Qed.

(* the rules of Sem/FsCheck.v in the form the induction takes them *)
Lemma ibound_fbound : forall G b, ibound G b -> fbound G (cbvar b) CPrd CI64 = None.
Proof. intros G b (C & T & F). apply fbound_iff. exists b. auto. Qed.
Lemma ty_xtor_tys : forall side n d x sg,
  find_decl (match side with CPrd => data | CCns => codata end) n = Some d -> find_cxtor d x = Some sg ->
  forall b, In b (cxargs sg) -> tyok (cbty b) = true.
Proof. intros side n d x sg Hd Hs. eapply Hxt; [|exact Hd|exact Hs]. destruct side; auto. Qed.
Lemma ty_var : forall G v c ty, flookup G (cid_id v) = Some (mkcb v c ty) -> kt G c ty (FsXVar c v ty) = None.
Proof. intros G v c ty H. apply kt_var. repeat split. exists (mkcb v c ty). auto. Qed.
Lemma ty_op : forall G b1 o b2, ibound G b1 -> ibound G b2 -> kt G CPrd CI64 (FsOp (cbvar b1) o (cbvar b2)) = None.
Proof. intros G b1 o b2 H1 H2. apply kt_op. repeat split; apply ibound_fbound; assumption. Qed.
Lemma ty_xcase : forall G side cls cls' n d,
  find_decl (match side with CPrd => codata | CCns => data end) n = Some d ->
  cclauses_match side n cls (ctxtors d) = None -> Forall2 clause_hdr cls cls' ->
  Forall (QC (fun G s => ks G s = None) G) cls' -> kt G side (CDecl n) (FsXCase side cls' (CDecl n)) = None.
Proof.
  intros G side cls cls' n d Hd Hm F2 F1.
  exact (kt_xcase_intro data codata fdefs G side (CDecl n) cls' n d eq_refl Hd (cclauses_to_fs _ _ _ _ Hm _ F2) F1).
Qed.
Lemma ty_ifc : forall G so b1 ob t e,
  ibound G b1 -> match ob with Some b2 => ibound G b2 | None => True end -> ks G t = None -> ks G e = None ->
  ks G (FsIfC so (cbvar b1) (option_map cbvar ob) t e) = None.
Proof.
  intros G so b1 ob t e H1 Ho Ht He. apply ks_ifc. split; [apply ibound_fbound; exact H1|]. split; [|auto].
  destruct ob as [b2|]; [apply ibound_fbound; exact Ho | exact I].
Qed.
Lemma ty_call : forall G f d bs, find (fun d => cident_eqb (cdname d) f) defs = Some d ->
  Forall2 (farg_ok G) bs (cdctx d) -> ks G (FsCall f bs) = None.
Proof.
  intros G f d bs Hd Hb. destruct (Hfd f d Hd) as [d' [Hd' Hctx]].
  eapply ks_call_intro; [exact Hd'|]. rewrite Hctx. exact Hb.
Qed.

Theorem focus_stmt_typed : forall s m Gs Gt T s' m',
  focus_stmt s m = Ok (s', m') -> cs Gs s = None ->
  rel Gs Gt -> NoDup (binder_ids_stmt s ++ cids Gs) -> ids_le_stmt T s = true -> mem_le T (cids Gs) -> T <= m ->
  mem_le m (cids Gt) -> ks Gt s' = None.
Proof.
  intros s m Gs Gt T s' m' Hf Ht Hrel Hnd Hid HGs LE HGt.
  refine (focus_stmt_inv data codata defs (fun ty => tyok ty = true) (fun G s => ks G s = None) (fun G c ty t => kt G c ty t = None)
            eq_refl (fun ty H => H) ty_xtor_tys Hpt ty_var _ ty_op _ _ ty_xcase _ ty_ifc _ ty_call _
            s m Gs Gt T s' m' Hf Ht (conj Hrel (conj HGs (conj LE HGt))) Hnd Hid).
  - intros G n. apply kt_lit. auto.
  - intros G c v s0 ty H. apply kt_mu. auto.
  - intros G side x bs n d sg Hd Hs Hb. exact (kt_xtor_intro data codata fdefs G side (CDecl n) x bs n d sg eq_refl Hd Hs Hb).
  - intros G p ty q Hty Hp Hq. apply ks_cut. auto.
  - intros G nl b next Hb Hn. apply ks_print. split; [apply ibound_fbound; exact Hb | exact Hn].
  - intros G b Hb. apply ks_exit, ibound_fbound. exact Hb.
Qed.
End FocusTy.
