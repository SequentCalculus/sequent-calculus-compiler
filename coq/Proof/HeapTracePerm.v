(* The ghost roots of an operation trace matter up to permutation only: `pre`, `ghost`, `pre_trace`
   and `grun` respect permutations of the root multiset. *)
From Coq Require Import List ZArith Lia Bool Permutation.
From SCC Require Import Model.Heap Proof.HeapMore Proof.HeapTrace Proof.HeapRep Proof.HeapRepSubst.
Import ListNotations.
Open Scope Z_scope.

Lemma nz_perm l l' : Permutation l l' -> Permutation (nz l) (nz l').
Proof.
  induction 1 as [|x l l' H IH|x y l|l1 l2 l3 H1 IH1 H2 IH2]; cbn [nz filter].
  - reflexivity.
  - destruct (negb (x =? 0)); [now apply perm_skip|exact IH].
  - destruct (negb (x =? 0)), (negb (y =? 0)); try reflexivity. apply perm_swap.
  - etransitivity; eauto.
Qed.

Lemma rem1_notin x l : ~ In x l -> rem1 x l = l.
Proof.
  induction l as [|y l IH]; cbn; auto. intros H. destruct (Z.eq_dec x y) as [->|_]; [exfalso; apply H; now left|].
  rewrite IH; auto.
Qed.
Lemma rem1_perm_cong x l l' : Permutation l l' -> Permutation (rem1 x l) (rem1 x l').
Proof.
  intros HP. destruct (in_dec Z.eq_dec x l) as [Hin|Hn].
  - apply (Permutation_cons_inv (a := x)).
    etransitivity; [symmetry; apply rem1_perm; exact Hin|]. etransitivity; [exact HP|].
    apply rem1_perm. eapply Permutation_in; eauto.
  - rewrite !rem1_notin; auto. intro H. apply Hn. eapply Permutation_in; [symmetry|]; eauto.
Qed.
Lemma msub_perm_cong xs : forall l l', Permutation l l' -> Permutation (msub l xs) (msub l' xs).
Proof.
  unfold msub. induction xs as [|x xs IH]; intros l l' HP; cbn [fold_left]; auto.
  apply IH. now apply rem1_perm_cong.
Qed.

Lemma ghost_perm s R R' o : Permutation R R' -> Permutation (ghost s R o) (ghost s R' o).
Proof.
  intros HP. destruct o as [p n|p|sl|p|p|p|f|k p|k p|k p]; cbn [ghost].
  - destruct (p =? 0); auto. now apply Permutation_app_head.
  - destruct (p =? 0); auto. now apply rem1_perm_cong.
  - apply perm_skip. now apply msub_perm_cong.
  - apply Permutation_app_head. now apply rem1_perm_cong.
  - apply Permutation_app_head. now apply rem1_perm_cong.
  - apply Permutation_app_head. now apply rem1_perm_cong.
  - destruct f; auto. apply perm_skip. now apply msub_perm_cong.
  - apply Permutation_app_head. now apply rem1_perm_cong.
  - apply Permutation_app_head. now apply rem1_perm_cong.
  - apply Permutation_app_head. now apply rem1_perm_cong.
Qed.

Lemma sub_ok_perm xs R R' : Permutation R R' -> sub_ok xs R -> sub_ok xs R'.
Proof. intros HP H b. rewrite <- (cnt_perm _ _ b HP). apply H. Qed.
Lemma pre_perm s R R' o : Permutation R R' -> pre s R o -> pre s R' o.
Proof.
  intros HP. assert (HI : forall p, In p R -> In p R') by (intros p; apply Permutation_in; exact HP).
  destruct o as [p n|p|sl|p|p|p|f|k p|k p|k p]; cbn [pre]; intuition eauto using sub_ok_perm.
Qed.

Lemma pre_trace_perm : forall ops s R R', Permutation R R' -> pre_trace s R ops -> pre_trace s R' ops.
Proof.
  induction ops as [|o ops IH]; intros s R R' HP H; cbn [pre_trace] in *; auto. destruct H as [H1 H2]. split.
  - eapply pre_perm; eauto.
  - eapply IH; [|exact H2]. now apply ghost_perm.
Qed.
Lemma grun_perm : forall ops s R R', Permutation R R' ->
  fst (grun ops (s, R)) = fst (grun ops (s, R')) /\ Permutation (snd (grun ops (s, R))) (snd (grun ops (s, R'))).
Proof.
  induction ops as [|o ops IH]; intros s R R' HP; cbn [grun fold_left]; [cbn; auto|].
  unfold gstep at 2 4 6 8. cbn [fst snd]. apply IH. now apply ghost_perm.
Qed.

Lemma sub_ok_app xs R0 R : Permutation R (xs ++ R0) -> sub_ok xs R.
Proof. intros HP b. rewrite (cnt_perm _ _ b HP), cnt_app. pose proof (cnt_nonneg R0 b). lia. Qed.
Lemma msub_app xs R0 R : Permutation R (xs ++ R0) -> Permutation (msub R xs) R0.
Proof.
  intros HP. apply (Permutation_app_inv_l xs). etransitivity; [symmetry; apply msub_perm; eapply sub_ok_app; eauto|exact HP].
Qed.
