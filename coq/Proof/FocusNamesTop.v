(* [names_ok] of the output of `Prog::focus` (C12):
     wt_core c -> pre_check c -> focus_prog c = Ok f -> names_ok f. *)
From Coq Require Import List ZArith NArith String Bool Lia.
From SCC Require Import Base.Sexp Lang.SynUtil Lang.CoreSyn Sem.FsCheck Sem.CoreCheck Sem.FsFrag2
     Model.Backend Model.Uniquify Model.Focus Model.FocusCheck
     Proof.CoreInd Proof.SubstProof Proof.CheckLemmas Proof.UniquifyProof Proof.FocusLemmas Proof.FocusProof Proof.PathLemmas
     Proof.FocusTheorems Proof.FocusKont Proof.FocusMono Proof.CoreTyRules Proof.FsTyRules Proof.FocusTy Proof.FocusNames
     Proof.UqTyTop Proof.FocusTyTop Proof.WtPreserve.
Import ListNotations.
Open Scope list_scope.
Open Scope N_scope.

Theorem focus_names_thm : forall c f,
  wt_core c = true -> pre_check c = true -> focus_prog c = Ok f -> FsFrag2.names_ok f = true.
Proof.
  intros c f Hwt Hpre Hf.
  destruct (focus_prog_inv c f Hwt Hpre Hf) as (ds' & M & qs & M' & -> & L & E & F & Ef & Hc1).
  apply check_core_iff in Hc1. cbv zeta in Hc1. cbn [cpdefs cpdata cpcodata] in Hc1.
  destruct Hc1 as (_ & _ & _ & _ & _ & C6). apply ccheck_defs_iff in C6. rewrite Forall_forall in C6.
  unfold FsFrag2.names_ok. cbn [fspdefs]. apply forallb_forall.
  refine (focus_defs_lift _ (fun G s => nc_stmt (cvars G) s = true) (focus_stmt_names (cpdata c) (cpcodata c) ds')
            ds' M qs M' M Ef (N.le_refl _) _).
  intros d Hd.
  assert (HF : Forall (fun d' => NoDup (binder_ids_def d') /\ ids_le_def M d' = true) ds').
  { apply (forall2_right _ _ _ _ _ _ F). intros d0 d1 (A & B & C & D & E'). auto. }
  rewrite Forall_forall in HF. destruct (HF d Hd) as [U2 U3]. split; [exact U3|]. split; [exact U2|].
  exact (proj2 (proj2 (C6 d Hd))).
Qed.
