(* Proofs about the model of fun2core (Model/Fun2Core.v): fresh_name finds an unused name; the translation only
   ever adds pairwise distinct names that were unused before ([grows], for all 15 term forms through the induction
   principle [wc_cmp_ind] over both translation methods); the definition names of the output are distinct; the
   witnesses of the repaired defects; a shared continuation is not duplicated. *)
From Coq Require Import List ZArith NArith String Bool Ascii Lia DecimalString DecimalN DecimalPos Permutation FinFun.
From SCC Require Import Base.Sexp Lang.SynUtil Lang.FunSyn Lang.FunTy Lang.CoreSyn Model.Fun2Core.
From SCC Require Import Sem.AxSem Sem.CoreSem Sem.FunSem.
Import ListNotations.
Open Scope string_scope.
Open Scope list_scope.

Lemma mem_In : forall x l, mem x l = true <-> In x l.
Proof.
  intros x l. unfold mem. rewrite existsb_exists. split.
  - intros [y [Hin Heq]]. apply String.eqb_eq in Heq. subst. exact Hin.
  - intros Hin. exists x. split; [exact Hin | apply String.eqb_refl].
Qed.
Lemma mem_false_not_In : forall x l, mem x l = false <-> ~ In x l.
Proof.
  intros x l. rewrite <- mem_In. destruct (mem x l); split; intros H; congruence.
Qed.

Lemma n_to_string_inj : forall a b, n_to_string a = n_to_string b -> a = b.
Proof.
  intros a b H. unfold n_to_string in H.
  assert (Hnn : forall n, N.to_uint n <> Decimal.Nil).
  { intros [|p]; simpl; [discriminate | apply Unsigned.to_uint_nonnil]. }
  assert (Hu : N.to_uint a = N.to_uint b).
  { pose proof (NilZero.usu _ (Hnn a)) as Ha. pose proof (NilZero.usu _ (Hnn b)) as Hb.
    rewrite H in Ha. rewrite Ha in Hb. congruence. }
  rewrite <- (DecimalN.Unsigned.of_to a), <- (DecimalN.Unsigned.of_to b), Hu. reflexivity.
Qed.

Lemma append_inj_l : forall (s a b : string), (s ++ a = s ++ b)%string -> a = b.
Proof.
  induction s as [|c s IH]; simpl; intros a b H; [exact H|].
  injection H as H. apply IH. exact H.
Qed.

Lemma cand_inj : forall base a b, cand base a = cand base b -> a = b.
Proof.
  intros base a b H. unfold cand in H. apply append_inj_l in H. apply n_to_string_inj. exact H.
Qed.

(* candidates n, n+1, .., n+k-1 *)
Fixpoint cands (base : string) (n : N) (k : nat) : list string :=
  match k with O => [] | S k' => cand base n :: cands base (N.succ n) k' end.
Lemma cands_In : forall base k n x, In x (cands base n k) -> exists m, (n <= m)%N /\ x = cand base m.
Proof.
  induction k as [|k IH]; simpl; intros n x H; [contradiction|].
  destruct H as [H|H].
  - exists n. split; [lia | symmetry; exact H].
  - destruct (IH _ _ H) as [m [Hle Hx]]. exists m. split; [lia | exact Hx].
Qed.
Lemma cands_NoDup : forall base k n, NoDup (cands base n k).
Proof.
  induction k as [|k IH]; simpl; intros n; constructor.
  - intros Hin. destruct (cands_In _ _ _ _ Hin) as [m [Hle Heq]].
    apply cand_inj in Heq. lia.
  - apply IH.
Qed.
Lemma cands_length : forall base k n, List.length (cands base n k) = k.
Proof. induction k; simpl; intros; [reflexivity | rewrite IHk; reflexivity]. Qed.

(* the search either stops at an unused candidate, or it used up its fuel on used candidates *)
Lemma fresh_idx_spec : forall fuel used base n,
  mem (cand base (fresh_idx fuel used base n)) used = false \/
  incl (cands base n (S fuel)) used.
Proof.
  induction fuel as [|fuel IH]; intros used base n; simpl.
  - destruct (mem (cand base n) used) eqn:Hm; [right | left; reflexivity].
    intros x [Hx|[]]. subst. apply mem_In. exact Hm.
  - destruct (mem (cand base n) used) eqn:Hm; [| left; exact Hm].
    destruct (IH used base (N.succ n)) as [Hf|Hincl]; [left; exact Hf|].
    right. intros x [Hx|Hx].
    + subst. apply mem_In. exact Hm.
    + apply Hincl. exact Hx.
Qed.

(* fresh_name: the name returned is not in `used`, and `used` grows by exactly that name.
   (The fuel |used| always suffices: |used|+1 distinct candidates cannot all be used.) *)
Theorem fresh_name_fresh : forall used base,
  ~ In (fst (fresh_name used base)) used /\
  snd (fresh_name used base) = fst (fresh_name used base) :: used.
Proof.
  intros used base. unfold fresh_name. simpl. split; [|reflexivity].
  destruct (fresh_idx_spec (List.length used) used base 0%N) as [Hf|Hincl].
  - apply mem_false_not_In. exact Hf.
  - exfalso.
    pose proof (NoDup_incl_length (cands_NoDup base (S (List.length used)) 0%N) Hincl) as Hlen.
    rewrite cands_length in Hlen. lia.
Qed.

Lemma fresh_name_shape : forall used base, exists n, fst (fresh_name used base) = cand base n.
Proof. intros. unfold fresh_name. simpl. eexists. reflexivity. Qed.

(* minimality: every smaller index is used (this is what fixes the numbering x0, x1, ..) *)
Lemma fresh_idx_minimal : forall fuel used base n k,
  (n <= k)%N -> (k < fresh_idx fuel used base n)%N -> In (cand base k) used.
Proof.
  induction fuel as [|fuel IH]; simpl; intros used base n k Hle Hlt; [lia|].
  destruct (mem (cand base n) used) eqn:Hm; [|lia].
  destruct (N.eq_dec k n) as [->|Hne]; [apply mem_In; exact Hm|].
  apply (IH used base (N.succ n) k); [lia | exact Hlt].
Qed.

(* The translation only ever ADDS names, each unused at the moment it is generated:
   after any run of wc / cmp / share the sets used_vars and used_labels are the old ones
   extended by pairwise distinct names that were not in them.  Since used_vars starts with the
   parameters and all binders of the definition, and used_labels with all definition names,
   generated (co)variables and labels never coincide with user-chosen ones or with each other. *)

Definition fresh_list (g base : list string) : Prop :=
  NoDup g /\ forall x, In x g -> ~ In x base.

Lemma fresh_list_nil : forall base, fresh_list [] base.
Proof. intros. split; [constructor | intros x []]. Qed.

Lemma fresh_list_app : forall g2 g1 base,
  fresh_list g1 base -> fresh_list g2 (g1 ++ base) -> fresh_list (g2 ++ g1) base.
Proof.
  intros g2 g1 base [Hnd1 Hf1] [Hnd2 Hf2]. split.
  - induction g2 as [|x g2 IH]; simpl; [exact Hnd1|].
    inversion Hnd2 as [|? ? Hnotin Hnd2']; subst. constructor.
    + intros Hin. apply in_app_or in Hin. destruct Hin as [Hin|Hin]; [contradiction|].
      apply (Hf2 x); [left; reflexivity | apply in_or_app; left; exact Hin].
    + apply IH; [exact Hnd2'|]. intros y Hy. apply Hf2. right. exact Hy.
  - intros x Hin Hbase. apply in_app_or in Hin. destruct Hin as [Hin|Hin].
    + apply (Hf2 x Hin). apply in_or_app. right. exact Hbase.
    + apply (Hf1 x Hin Hbase).
Qed.

Record grows (st st' : cstate) : Prop := mkgrows {
  gr_vars : exists g, st_used_vars st' = g ++ st_used_vars st /\ fresh_list g (st_used_vars st);
  (* labels and lifted definitions grow together: one lifted definition per generated label, named by it *)
  gr_labels : exists g l, st_used_labels st' = g ++ st_used_labels st /\ fresh_list g (st_used_labels st) /\
                          st_lifted st' = l ++ st_lifted st /\ map cdname l = map new_id g }.

Lemma grows_refl : forall st, grows st st.
Proof.
  intros st. constructor.
  - exists []. split; [reflexivity | apply fresh_list_nil].
  - exists [], []. repeat split; try reflexivity; try constructor. intros x [].
Qed.

Lemma grows_trans : forall a b c, grows a b -> grows b c -> grows a c.
Proof.
  intros a b c [[g1 [E1 F1]] [h1 [l1 [L1 [G1 [M1 N1]]]]]] [[g2 [E2 F2]] [h2 [l2 [L2 [G2 [M2 N2]]]]]]. constructor.
  - exists (g2 ++ g1). split; [rewrite E2, E1, app_assoc; reflexivity|].
    apply fresh_list_app; [exact F1 | rewrite <- E1; exact F2].
  - exists (h2 ++ h1), (l2 ++ l1). split; [rewrite L2, L1, app_assoc; reflexivity|].
    split; [apply fresh_list_app; [exact G1 | rewrite <- L1; exact G2]|].
    split; [rewrite M2, M1, app_assoc; reflexivity|].
    rewrite !map_app, N1, N2. reflexivity.
Qed.

Definition mgrows {X} (m : M X) : Prop := forall st x st', m st = Ok (x, st') -> grows st st'.

Lemma mgrows_ret : forall X (x : X), mgrows (mret x).
Proof. intros X x st y st' H. unfold mret in H. injection H as _ H. subst. apply grows_refl. Qed.
Lemma mgrows_fail : forall X e, mgrows (@mfail X e).
Proof. intros X e st y st' H. discriminate H. Qed.
Lemma mgrows_lift : forall X (r : res X), mgrows (mlift r).
Proof.
  intros X r st y st' H. unfold mlift in H. destruct r; [|discriminate].
  injection H as _ H. subst. apply grows_refl.
Qed.
Lemma mgrows_bind : forall X Y (m : M X) (f : X -> M Y),
  mgrows m -> (forall x, mgrows (f x)) -> mgrows (mbind m f).
Proof.
  intros X Y m f Hm Hf st y st' H. unfold mbind in H.
  destruct (m st) as [[x st1]|e] eqn:E; [|discriminate].
  eapply grows_trans; [eapply Hm; exact E | eapply Hf; exact H].
Qed.

Lemma mbind_inv : forall X Y (m : M X) (f : X -> M Y) st y st',
  mbind m f st = Ok (y, st') -> exists x st1, m st = Ok (x, st1) /\ f x st1 = Ok (y, st').
Proof.
  intros X Y m f st y st' H. unfold mbind in H. destruct (m st) as [[x st1]|e]; [|discriminate].
  exists x, st1. split; [reflexivity | exact H].
Qed.
Lemma mret_inv : forall X (x y : X) st st', mret x st = Ok (y, st') -> y = x /\ st' = st.
Proof. intros X x y st st' H. unfold mret in H. injection H as H1 H2. auto. Qed.
Lemma mlift_inv : forall X (r : res X) st y st', mlift r st = Ok (y, st') -> r = Ok y /\ st' = st.
Proof. intros X r st y st' H. unfold mlift in H. destruct r; [|discriminate]. injection H as H1 H2. subst. auto. Qed.
Lemma expect_ty_inv : forall o t, expect_ty o = Ok t -> o = Some t.
Proof. intros [t'|] t H; simpl in H; [injection H as H; subst; reflexivity | discriminate]. Qed.

Lemma expect_inv : forall o st t st', mlift (expect_ty o) st = Ok (t, st') -> o = Some t /\ st' = st.
Proof. intros o st t st' H. apply mlift_inv in H. destruct H as [H ->]. apply expect_ty_inv in H. auto. Qed.

Ltac minv H :=
  let x := fresh "x" in let st := fresh "st" in let H1 := fresh "E" in
  match type of H with
  | mbind _ _ _ = Ok _ => apply mbind_inv in H; destruct H as [x [st [H1 H]]]
  end.

Lemma mgrows_fresh_in_vars : forall base, mgrows (fresh_in_vars base).
Proof.
  intros base st x st' H. unfold fresh_in_vars in H.
  destruct (fresh_name (st_used_vars st) base) as [nm used'] eqn:E.
  injection H as Hx Hst. subst.
  pose proof (fresh_name_fresh (st_used_vars st) base) as [Hfresh Hsnd]. rewrite E in *. simpl in *.
  constructor; simpl.
  - exists [x]. split; [exact Hsnd|]. split; [repeat constructor; intros []|].
    intros y [Hy|[]]. subst. exact Hfresh.
  - exists [], []. repeat split; try reflexivity; try constructor. intros y [].
Qed.
Lemma mgrows_fresh_var : mgrows fresh_var.
Proof. apply mgrows_fresh_in_vars. Qed.
Lemma mgrows_fresh_covar : mgrows fresh_covar.
Proof. apply mgrows_fresh_in_vars. Qed.
(* share generates its label and pushes the lifted definition named by it in one go *)
Lemma mgrows_label_push : forall X base ctx body (k : string -> M X),
  (forall name, mgrows (k name)) ->
  mgrows (dom name <- fresh_label base; dom _ <- push_lifted (mkcd (new_id name) ctx body); k name).
Proof.
  intros X base ctx body k Hk st x st' H. unfold mbind, fresh_label, push_lifted in H.
  destruct (fresh_name (st_used_labels st) base) as [nm used'] eqn:E.
  pose proof (fresh_name_fresh (st_used_labels st) base) as [Hfresh Hsnd]. rewrite E in *. simpl in *.
  eapply grows_trans; [|exact (Hk _ _ _ _ H)]. constructor; simpl.
  - exists []. split; [reflexivity | apply fresh_list_nil].
  - exists [nm], [mkcd (new_id nm) ctx body]. split; [exact Hsnd|].
    split; [split; [repeat constructor; intros [] | intros y [Hy|[]]; subst; exact Hfresh]|].
    split; reflexivity.
Qed.
Lemma mgrows_share : forall cur cont, mgrows (share cur cont).
Proof.
  intros cur cont. unfold share. apply mgrows_bind.
  - destruct cont; try apply mgrows_ret;
      (apply mgrows_bind; [apply mgrows_fresh_var | intros; apply mgrows_ret]).
  - intros [[var ty] body]. apply mgrows_label_push. intros name. apply mgrows_ret.
Qed.

(* [mgrows] of a combinator: through binds, branches and the hypotheses about its parameters *)
Ltac mg :=
  repeat first
    [ assumption
    | apply mgrows_share
    | apply mgrows_ret | apply mgrows_fail | apply mgrows_lift
    | apply mgrows_fresh_var | apply mgrows_fresh_covar
    | apply mgrows_bind; [| intros ?]
    | match goal with
      | |- mgrows (if ?c then _ else _) => destruct c
      | |- mgrows (match ?x with _ => _ end) => destruct x
      | |- mgrows (let '(_, _) := ?x in _) => destruct x
      | H : forall c, mgrows (?f c) |- mgrows (?f _) => apply H
      end
    | progress cbv beta
    | match goal with H : _ |- mgrows _ => solve [apply H] end ].

Lemma mgrows_default_compile : forall wcf ty,
  (forall c, mgrows (wcf c)) -> mgrows (default_compile wcf ty).
Proof. intros. unfold default_compile. mg. Qed.

Definition clause_body (c : fclause) : fterm := match c with FClause _ _ _ _ b => b end.
Section FtermInd.
  Variable P : fterm -> Prop.
  Definition opt_P (b : option fterm) : Prop := match b with Some b' => P b' | None => True end.
  Hypothesis H_var : forall v ty chi, P (FVar v ty chi).
  Hypothesis H_lit : forall n, P (FLit n).
  Hypothesis H_op : forall a o b, P a -> P b -> P (FOp a o b).
  Hypothesis H_ifc : forall s a b t1 t2 ty,
    P a -> opt_P b -> P t1 -> P t2 -> P (FIfC s a b t1 t2 ty).
  Hypothesis H_print : forall nl a next ty, P a -> P next -> P (FPrint nl a next ty).
  Hypothesis H_let : forall v vty bound body ty, P bound -> P body -> P (FLet v vty bound body ty).
  Hypothesis H_call : forall f args ret, Forall P args -> P (FCall f args ret).
  Hypothesis H_ctor : forall x args ty, Forall P args -> P (FCtor x args ty).
  Hypothesis H_dtor : forall scrut x targs args ty, P scrut -> Forall P args -> P (FDtor scrut x targs args ty).
  Hypothesis H_case : forall scrut targs cls ty,
    P scrut -> Forall (fun c => P (clause_body c)) cls -> P (FCase scrut targs cls ty).
  Hypothesis H_new : forall cls ty, Forall (fun c => P (clause_body c)) cls -> P (FNew cls ty).
  Hypothesis H_label : forall l t ty, P t -> P (FLabel l t ty).
  Hypothesis H_goto : forall l t ty, P t -> P (FGoto l t ty).
  Hypothesis H_exit : forall a ty, P a -> P (FExit a ty).
  Hypothesis H_paren : forall t, P t -> P (FParen t).

  Fixpoint fterm_ind' (t : fterm) : P t :=
    let go_terms := fix go (l : list fterm) : Forall P l :=
      match l with [] => Forall_nil _ | y :: r => Forall_cons _ (fterm_ind' y) (go r) end in
    let go_cls := fix go (l : list fclause) : Forall (fun c => P (clause_body c)) l :=
      match l with
      | [] => Forall_nil _
      | c :: r =>
          Forall_cons _ (match c return P (clause_body c) with FClause _ _ _ _ b => fterm_ind' b end) (go r)
      end in
    match t with
    | FVar v ty chi => H_var v ty chi
    | FLit n => H_lit n
    | FOp a o b => H_op a o b (fterm_ind' a) (fterm_ind' b)
    | FIfC s a b t1 t2 ty =>
        H_ifc s a b t1 t2 ty (fterm_ind' a)
          (match b as b1 return opt_P b1 with
           | Some b0 => fterm_ind' b0
           | None => I
           end)
          (fterm_ind' t1) (fterm_ind' t2)
    | FPrint nl a next ty => H_print nl a next ty (fterm_ind' a) (fterm_ind' next)
    | FLet v vty bound body ty => H_let v vty bound body ty (fterm_ind' bound) (fterm_ind' body)
    | FCall f args ret => H_call f args ret (go_terms args)
    | FCtor x args ty => H_ctor x args ty (go_terms args)
    | FDtor scrut x targs args ty => H_dtor scrut x targs args ty (fterm_ind' scrut) (go_terms args)
    | FCase scrut targs cls ty => H_case scrut targs cls ty (fterm_ind' scrut) (go_cls cls)
    | FNew cls ty => H_new cls ty (go_cls cls)
    | FLabel l t' ty => H_label l t' ty (fterm_ind' t')
    | FGoto l t' ty => H_goto l t' ty (fterm_ind' t')
    | FExit a ty => H_exit a ty (fterm_ind' a)
    | FParen t' => H_paren t' (fterm_ind' t')
    end.
End FtermInd.

Section Unfold.
  Variable codata : list ctydecl.
  Variable cur : string.
  Variable lg : bool.
  Let wc' := wc codata cur lg.
  Let cmp' := cmp codata cur lg.
  Lemma wc_unfold : forall t cont,
    wc codata cur lg t cont =
    match t with
    | FVar v ty _ => wc_var v ty cont
    | FLit n => wc_lit n cont
    | FOp a o b => wc_op (cmp' a CI64) o (cmp' b CI64) cont
    | FIfC s a b t1 t2 _ =>
        wc_ifc cur s (cmp' a CI64) (match b with Some b' => Some (cmp' b' CI64) | None => None end) (wc' t1) (wc' t2) cont
    | FPrint nl a next _ => wc_print nl (cmp' a CI64) (wc' next) cont
    | FLet v vty bound body lty =>
        guard_capture lg [v] (wc_let codata v vty (cmp' bound) (wc' bound) (wc' body)) lty cont
    | FCall f args ret => wc_call f (subst_with (fun y => cmp' y) args) ret cont
    | FCtor x args ty => wc_ctor x (subst_with (fun y => cmp' y) args) ty cont
    | FDtor scrut x _ args _ => wc_dtor (wc' scrut) (fterm_type scrut) x (subst_with (fun y => cmp' y) args) cont
    | FCase scrut _ cls cty' =>
        guard_capture lg (flat_map (fun c => match c with FClause _ _ _ ctx _ => fvars ctx end) cls)
          (wc_case cur (wc' scrut) (fterm_type scrut) (List.length cls) (fun cont' => clauses_with (fun b => wc' b) cont' cls))
          cty' cont
    | FNew cls ty => wc_new (coclauses_with (fun b => wc' b) cls) ty cont
    | FLabel l t' ty => wc_label l (wc' t') ty cont
    | FGoto l t' ty => wc_goto lg l (wc' t') ty (fterm_type t')
    | FExit a ty => wc_exit (cmp' a CI64) ty
    | FParen t' => wc' t' cont
    end.
  Proof. destruct t; reflexivity. Qed.

  Lemma cmp_unfold : forall t ty,
    cmp codata cur lg t ty =
    match t with
    | FVar v vty _ => cmp_var v vty
    | FLit n => cmp_lit n
    | FOp a o b => cmp_op (cmp' a CI64) o (cmp' b CI64)
    | FIfC s a b t1 t2 _ =>
        default_compile
          (wc_ifc cur s (cmp' a CI64) (match b with Some b' => Some (cmp' b' CI64) | None => None end) (wc' t1) (wc' t2)) ty
    | FPrint nl a next _ => default_compile (wc_print nl (cmp' a CI64) (wc' next)) ty
    | FLet v vty bound body lty =>
        default_compile (guard_capture lg [v] (wc_let codata v vty (cmp' bound) (wc' bound) (wc' body)) lty) ty
    | FCall f args ret => default_compile (wc_call f (subst_with (fun y => cmp' y) args) ret) ty
    | FCtor x args cty' => cmp_ctor x (subst_with (fun y => cmp' y) args) cty'
    | FDtor scrut x _ args _ =>
        default_compile (wc_dtor (wc' scrut) (fterm_type scrut) x (subst_with (fun y => cmp' y) args)) ty
    | FCase scrut _ cls cty' =>
        default_compile
          (guard_capture lg (flat_map (fun c => match c with FClause _ _ _ ctx _ => fvars ctx end) cls)
             (wc_case cur (wc' scrut) (fterm_type scrut) (List.length cls) (fun cont' => clauses_with (fun b => wc' b) cont' cls))
             cty') ty
    | FNew cls nty => cmp_new (coclauses_with (fun b => wc' b) cls) nty
    | FLabel l t' lty => cmp_label l (wc' t') lty
    | FGoto l t' gty => default_compile (fun _ => wc_goto lg l (wc' t') gty (fterm_type t')) ty
    | FExit a ety => default_compile (fun _ => wc_exit (cmp' a CI64) ety) ty
    | FParen t' => cmp' t' ty
    end.
  Proof. destruct t; reflexivity. Qed.
End Unfold.

(* which of the two methods a term form implements
   Six forms implement `compile`, and their compile_with_cont cuts the result against the continuation;
   eight implement compile_with_cont and take the default `compile`; parentheses pass both through. *)
Definition value_form (t : fterm) : bool :=
  match t with
  | FVar _ _ _ | FLit _ | FOp _ _ _ | FCtor _ _ _ | FNew _ _ | FLabel _ _ _ => true
  | _ => false
  end.
Definition stmt_form (t : fterm) : bool :=
  match t with
  | FIfC _ _ _ _ _ _ | FPrint _ _ _ _ | FLet _ _ _ _ _ | FCall _ _ _ | FDtor _ _ _ _ _
  | FCase _ _ _ _ | FGoto _ _ _ | FExit _ _ => true
  | _ => false
  end.

Lemma cmp_stmt_form : forall codata cur lg t ty, stmt_form t = true ->
  cmp codata cur lg t ty = default_compile (wc codata cur lg t) ty.
Proof. intros codata cur lg t ty H. destruct t; try discriminate H; reflexivity. Qed.

(* the shape of compile_with_cont of a constructor, a `new` and a label: the producer, cut at the annotated type *)
Lemma cut_at_inv : forall (c : M cterm) ty cont st s st',
  (dom ty' <- mlift (expect_ty ty); dom p <- c; mret (CCut p (compile_ty ty') cont)) st = Ok (s, st') ->
  exists ty0 p, ty = Some ty0 /\ c st = Ok (p, st') /\ s = CCut p (compile_ty ty0) cont.
Proof.
  intros c ty cont st s st' H. minv H. apply expect_inv in E. destruct E as [-> ->].
  minv H. apply mret_inv in H. destruct H as [-> ->]. eauto.
Qed.

Lemma wc_value_form : forall codata cur lg t cont st s st', value_form t = true ->
  wc codata cur lg t cont st = Ok (s, st') ->
  exists c, (forall ty, cmp codata cur lg t ty st = Ok (c, st')) /\ s = CCut c (cterm_type c) cont.
Proof.
  intros codata cur lg t cont st s st' Hv H. rewrite wc_unfold in H.
  destruct t; try discriminate Hv.
  - unfold wc_var in H. minv H. apply expect_inv in E. destruct E as [-> ->]. apply mret_inv in H. destruct H as [-> ->].
    eexists. split; [intros ty1; reflexivity | reflexivity].
  - apply mret_inv in H. destruct H as [-> ->]. exists (CLit n). split; reflexivity.
  - unfold wc_op in H. minv H. apply mret_inv in H. destruct H as [-> ->].
    exists x. split; [intros ty1; rewrite cmp_unfold; exact E|].
    unfold cmp_op in E. minv E. minv E. apply mret_inv in E. destruct E as [-> _]. reflexivity.
  - apply cut_at_inv in H. destruct H as [ty0 [c [-> [E ->]]]].
    exists c. split; [intros ty1; rewrite cmp_unfold; exact E|].
    unfold cmp_ctor in E. minv E. minv E. apply expect_inv in E1. destruct E1 as [E1 _]. injection E1 as <-.
    apply mret_inv in E. destruct E as [-> _]. reflexivity.
  - apply cut_at_inv in H. destruct H as [ty0 [c [-> [E ->]]]].
    exists c. split; [intros ty1; rewrite cmp_unfold; exact E|].
    unfold cmp_new in E. minv E. minv E. apply expect_inv in E1. destruct E1 as [E1 _]. injection E1 as <-.
    apply mret_inv in E. destruct E as [-> _]. reflexivity.
  - apply cut_at_inv in H. destruct H as [ty0 [c [-> [E ->]]]].
    exists c. split; [intros ty1; rewrite cmp_unfold; exact E|].
    unfold cmp_label in E. minv E. apply expect_inv in E0. destruct E0 as [E0 _]. injection E0 as <-.
    minv E. apply mret_inv in E. destruct E as [-> _]. reflexivity.
Qed.

(* Induction over the two methods together: [W t] about compile_with_cont, [C t] about compile.  Each term form is
   proved for the method it implements, from the facts about the sub-terms for the method it calls on them;
   the other method follows once and for all from [W_value] / [C_stmt]. *)
Section WcCmpInd.
  Variables W C : fterm -> Prop.
  Hypothesis W_value : forall t, value_form t = true -> C t -> W t.
  Hypothesis C_stmt : forall t, stmt_form t = true -> W t -> C t.
  Hypothesis H_var : forall v ty chi, C (FVar v ty chi).
  Hypothesis H_lit : forall n, C (FLit n).
  Hypothesis H_op : forall a o b, C a -> C b -> C (FOp a o b).
  Hypothesis H_ifc : forall s a b t1 t2 ty, C a -> opt_P C b -> W t1 -> W t2 -> W (FIfC s a b t1 t2 ty).
  Hypothesis H_print : forall nl a next ty, C a -> W next -> W (FPrint nl a next ty).
  Hypothesis H_let : forall v vty bound body ty, W bound -> C bound -> W body -> W (FLet v vty bound body ty).
  Hypothesis H_call : forall f args ret, Forall C args -> W (FCall f args ret).
  Hypothesis H_ctor : forall x args ty, Forall C args -> C (FCtor x args ty).
  Hypothesis H_dtor : forall scrut x targs args ty, W scrut -> Forall C args -> W (FDtor scrut x targs args ty).
  Hypothesis H_case : forall scrut targs cls ty,
    W scrut -> Forall (fun c => W (clause_body c)) cls -> W (FCase scrut targs cls ty).
  Hypothesis H_new : forall cls ty, Forall (fun c => W (clause_body c)) cls -> C (FNew cls ty).
  Hypothesis H_label : forall l t ty, W t -> C (FLabel l t ty).
  Hypothesis H_goto : forall l t ty, W t -> W (FGoto l t ty).
  Hypothesis H_exit : forall a ty, C a -> W (FExit a ty).
  Hypothesis H_paren : forall t, W t -> C t -> W (FParen t) /\ C (FParen t).

  Theorem wc_cmp_ind : forall t, W t /\ C t.
  Proof.
    assert (V : forall t, value_form t = true -> C t -> W t /\ C t) by (intros t Hv Hc; split; [apply W_value|]; assumption).
    assert (S : forall t, stmt_form t = true -> W t -> W t /\ C t) by (intros t Hs Hw; split; [|apply C_stmt]; assumption).
    assert (FC : forall l, Forall (fun t => W t /\ C t) l -> Forall C l)
      by (intros l H; eapply Forall_impl; [|exact H]; intros a Ha; apply Ha).
    assert (FW : forall l, Forall (fun c => W (clause_body c) /\ C (clause_body c)) l -> Forall (fun c => W (clause_body c)) l)
      by (intros l H; eapply Forall_impl; [|exact H]; intros a Ha; apply Ha).
    induction t using fterm_ind'.
    - apply V; [reflexivity | apply H_var].
    - apply V; [reflexivity | apply H_lit].
    - apply V; [reflexivity | apply H_op; [apply IHt1 | apply IHt2]].
    - apply S; [reflexivity|]. apply H_ifc; [apply IHt1 | destruct b; [apply H | exact I] | apply IHt2 | apply IHt3].
    - apply S; [reflexivity | apply H_print; [apply IHt1 | apply IHt2]].
    - apply S; [reflexivity | apply H_let; [apply IHt1 | apply IHt1 | apply IHt2]].
    - apply S; [reflexivity | apply H_call; apply FC; assumption].
    - apply V; [reflexivity | apply H_ctor; apply FC; assumption].
    - apply S; [reflexivity | apply H_dtor; [apply IHt | apply FC; assumption]].
    - apply S; [reflexivity | apply H_case; [apply IHt | apply FW; assumption]].
    - apply V; [reflexivity | apply H_new; apply FW; assumption].
    - apply V; [reflexivity | apply H_label; apply IHt].
    - apply S; [reflexivity | apply H_goto; apply IHt].
    - apply S; [reflexivity | apply H_exit; apply IHt].
    - apply H_paren; apply IHt.
  Qed.
End WcCmpInd.

Lemma mgrows_compile_arg : forall t f, (forall ty, mgrows (f ty)) -> mgrows (compile_arg t f).
Proof.
  intros t f H.
  assert (G : mgrows (dom ty <- mlift (expect_ty (fterm_type t)); dom p <- f (compile_ty ty); mret (CProducer p))) by mg.
  unfold compile_arg. destruct t; try exact G. destruct chi as [[|]|]; try exact G. mg.
Qed.

Lemma mgrows_subst_with : forall (f : fterm -> cty -> M cterm) args,
  Forall (fun t => forall ty, mgrows (f t ty)) args -> mgrows (subst_with f args).
Proof.
  intros f args H. induction H as [|t r Ht Hr IH]; simpl; mg.
  apply mgrows_compile_arg. exact Ht.
Qed.
Lemma mgrows_clauses_with : forall (w : fterm -> cterm -> M cstmt) cont cls,
  Forall (fun c => forall k, mgrows (w (clause_body c) k)) cls -> mgrows (clauses_with w cont cls).
Proof.
  intros w cont cls H. induction H as [|c r Hc Hr IH]; simpl; [mg|].
  destruct c as [p x names ctx body]. simpl in Hc. unfold compile_clause. mg.
Qed.
Lemma mgrows_coclauses_with : forall (w : fterm -> cterm -> M cstmt) cls,
  Forall (fun c => forall k, mgrows (w (clause_body c) k)) cls -> mgrows (coclauses_with w cls).
Proof.
  intros w cls H. induction H as [|c r Hc Hr IH]; simpl; [mg|].
  destruct c as [p x names ctx body]. simpl in Hc. unfold compile_coclause. mg.
Qed.

Lemma mgrows_guard_capture : forall lg binders w ty cont,
  (forall c, mgrows (w c)) -> mgrows (guard_capture lg binders w ty cont).
Proof. intros lg binders w ty cont H. unfold guard_capture. mg. Qed.

Lemma wc_cmp_grows : forall codata cur lg t,
  (forall cont, mgrows (wc codata cur lg t cont)) /\ (forall ty, mgrows (cmp codata cur lg t ty)).
Proof.
  intros codata cur lg.
  apply (wc_cmp_ind (fun t => forall cont, mgrows (wc codata cur lg t cont))
                    (fun t => forall ty, mgrows (cmp codata cur lg t ty))).
  - intros t Hv Hc cont st s st' H. destruct (wc_value_form _ _ _ _ _ _ _ _ Hv H) as [c [Hcmp _]].
    exact (Hc CI64 _ _ _ (Hcmp CI64)).
  - intros t Hs Hw ty. rewrite (cmp_stmt_form _ _ _ _ _ Hs). apply mgrows_default_compile. exact Hw.
  - intros v vty chi ty. rewrite cmp_unfold. unfold cmp_var. mg.
  - intros n ty. rewrite cmp_unfold. unfold cmp_lit. mg.
  - intros a o b Ca Cb ty. rewrite cmp_unfold. unfold cmp_op. mg.
  - intros s a b t1 t2 ty Ca Cb W1 W2 cont. rewrite wc_unfold. unfold wc_ifc. destruct b; simpl in Cb; mg.
  - intros nl a next ty Ca Wn cont. rewrite wc_unfold. unfold wc_print. mg.
  - intros v vty bound body ty Wb Cb Wbody cont. rewrite wc_unfold. apply mgrows_guard_capture. intros c.
    unfold wc_let. mg.
  - intros f args ret HA cont. rewrite wc_unfold. unfold wc_call.
    pose proof (mgrows_subst_with (fun y => cmp codata cur lg y) args HA). mg.
  - intros x args ty HA ty0. rewrite cmp_unfold. unfold cmp_ctor.
    pose proof (mgrows_subst_with (fun y => cmp codata cur lg y) args HA). mg.
  - intros scrut x targs args ty Ws HA cont. rewrite wc_unfold. unfold wc_dtor.
    pose proof (mgrows_subst_with (fun y => cmp codata cur lg y) args HA). mg.
  - intros scrut targs cls ty Ws HB cont. rewrite wc_unfold. apply mgrows_guard_capture. intros c.
    unfold wc_case. pose proof (fun k => mgrows_clauses_with (fun b => wc codata cur lg b) k cls HB). mg.
  - intros cls ty HB ty0. rewrite cmp_unfold. unfold cmp_new.
    pose proof (mgrows_coclauses_with (fun b => wc codata cur lg b) cls HB). mg.
  - intros l t ty Wt ty0. rewrite cmp_unfold. unfold cmp_label. mg.
  - intros l t ty Wt cont. rewrite wc_unfold. unfold wc_goto. mg.
  - intros a ty Ca cont. rewrite wc_unfold. unfold wc_exit. mg.
  - intros t Wt Ct. split; intros; [rewrite wc_unfold; apply Wt | rewrite cmp_unfold; apply Ct].
Qed.

(* the whole-translation form of "generated names are fresh": a run of compile_with_cont / compile
   from state st extends used_vars and used_labels by pairwise distinct names, none of which was
   in the respective set before *)
Theorem translation_names_fresh : forall codata cur lg t cont st s st',
  wc codata cur lg t cont st = Ok (s, st') ->
  (exists gv, st_used_vars st' = gv ++ st_used_vars st /\ NoDup gv /\ forall x, In x gv -> ~ In x (st_used_vars st)) /\
  (exists gl, st_used_labels st' = gl ++ st_used_labels st /\ NoDup gl /\ forall x, In x gl -> ~ In x (st_used_labels st)).
Proof.
  intros codata cur lg t cont st s st' H.
  destruct (proj1 (wc_cmp_grows codata cur lg t) cont st s st' H) as [[gv [Ev [Nv Fv]]] [gl [l [El [[Nl Fl] _]]]]].
  split; [exists gv | exists gl]; auto.
Qed.

(* share, read off its definition: a mu~ continuation is lifted as it is, any other is first bound to a fresh
   variable; the lifted definition takes the typed free variables of the body as parameters, is named by a new
   label share_<def>_<n> and is put in front; the result calls it *)
Lemma share_spec : forall cur cont st k st', share cur cont st = Ok (k, st') ->
  exists var ty body stv name n,
    (match cont with
     | CMu _ v s t => var = v /\ ty = t /\ body = s /\ stv = st
     | _ => exists x, fresh_var st = Ok (x, stv) /\ var = new_id x /\ ty = cterm_type cont /\
                      body = CCut (CXVar CPrd (new_id x) ty) ty cont
     end) /\
    name = cand ("share_" ++ cur ++ "_")%string n /\ ~ In name (st_used_labels st) /\
    st_used_vars st' = st_used_vars stv /\ st_used_labels st' = name :: st_used_labels st /\
    st_lifted stv = st_lifted st /\
    st_lifted st' = mkcd (new_id name) (tfv_stmt body []) body :: st_lifted st /\
    k = CMu CCns var (CCall (new_id name) (map arg_of_binding (tfv_stmt body [])) ty) ty.
Proof.
  intros cur cont st k st' H. unfold share in H. minv H. destruct x as [[var ty] body]. rename st0 into stv.
  (* the first step: only the variable set may change *)
  assert (Hm : (match cont with
                | CMu _ v s t => var = v /\ ty = t /\ body = s /\ stv = st
                | _ => exists x, fresh_var st = Ok (x, stv) /\ var = new_id x /\ ty = cterm_type cont /\
                                 body = CCut (CXVar CPrd (new_id x) ty) ty cont
                end) /\ st_used_labels stv = st_used_labels st /\ st_lifted stv = st_lifted st).
  { destruct cont;
      try (minv E; apply mret_inv in E; destruct E as [E ->]; injection E as -> -> ->;
           split; [eauto 8|];
           unfold fresh_var, fresh_in_vars in E0; destruct (fresh_name (st_used_vars st) "x");
           injection E0 as _ <-; split; reflexivity).
    apply mret_inv in E. destruct E as [E ->]. injection E as -> -> ->. auto. }
  destruct Hm as [Hm [Hl1 Hl2]]. clear E.
  (* the second: the label and the lifted definition *)
  minv H. minv H. apply mret_inv in H. destruct H as [-> ->].
  unfold fresh_label in E.
  pose proof (fresh_name_fresh (st_used_labels stv) ("share_" ++ cur ++ "_")%string) as [Hf Hs].
  pose proof (fresh_name_shape (st_used_labels stv) ("share_" ++ cur ++ "_")%string) as [n Hn].
  destruct (fresh_name (st_used_labels stv) ("share_" ++ cur ++ "_")) as [nm used'].
  injection E as <- <-. unfold push_lifted in E0. injection E0 as _ <-. cbn [fst snd] in *. subst used'. cbn [st_used_vars st_used_labels st_lifted].
  exists var, ty, body, stv, nm, n. rewrite <- Hl1, <- Hl2. auto 10.
Qed.

Theorem share_label_fresh : forall cur cont st k st',
  share cur cont st = Ok (k, st') ->
  exists name ctx body n,
    name = cand ("share_" ++ cur ++ "_")%string n /\
    ~ In name (st_used_labels st) /\
    st_used_labels st' = name :: st_used_labels st /\
    st_lifted st' = mkcd (new_id name) ctx body :: st_lifted st.
Proof.
  intros cur cont st k st' H.
  destruct (share_spec _ _ _ _ _ H) as [var [ty [body [stv [name [n [_ [Hn [Hf [_ [Hl [_ [Hd _]]]]]]]]]]]]].
  exists name, (tfv_stmt body []), body, n. auto.
Qed.

(* program level: definition names of the output are pairwise distinct
   (user definitions keep their names, every lifted definition is named by a generated label, and
   generated labels avoid all user definition names and each other - across definitions too, since
   used_labels is threaded through the whole program) *)

Lemma new_id_inj : forall a b, new_id a = new_id b -> a = b.
Proof. intros a b H. unfold new_id in H. injection H as H. exact H. Qed.

Lemma NoDup_app_intro : forall (X : Type) (a b : list X),
  NoDup a -> NoDup b -> (forall x, In x a -> ~ In x b) -> NoDup (a ++ b).
Proof.
  intros X a b Ha Hb Hd. induction Ha as [|x a Hx Ha IH]; simpl; [exact Hb|].
  constructor.
  - intros Hc. apply in_app_or in Hc. destruct Hc as [Hc|Hc]; [contradiction|].
    apply (Hd x); [left; reflexivity | exact Hc].
  - apply IH. intros y Hy. apply Hd. right. exact Hy.
Qed.

(* a definition: the initial state, the covariable / variable drawn for the continuation, the body *)
Lemma compile_def_inv : forall lg d codata ul g ul', compile_def lg d codata ul = Ok (g, ul') ->
  exists bty a sta body st',
    fterm_type (fdbody d) = Some bty /\
    fresh_covar (mkst (used_binders (fdbody d) (fvars (fdctx d))) ul []) = Ok (a, sta) /\
    wc codata (fdname d) lg (fdbody d) (CXVar CCns (new_id a) (compile_ty bty)) sta = Ok (body, st') /\
    g = mkcd (new_id (fdname d)) (compile_ctx (fdctx d) ++ [mkcb (new_id a) CCns (compile_ty (fdret d))]) body
          :: st_lifted st' /\
    ul' = st_used_labels st'.
Proof.
  intros lg d codata ul g ul' H. unfold compile_def, run_def_body in H.
  destruct (fterm_type (fdbody d)) as [bty|]; [|discriminate]. unfold rbind in H.
  match type of H with match ?m with _ => _ end = _ => destruct m as [[[a body] st']|] eqn:E end; [|discriminate].
  injection H as <- <-. minv E. minv E. apply mret_inv in E. destruct E as [E ->]. injection E as <- <-.
  exists bty, a, st, body, st0. auto.
Qed.
Lemma compile_main_inv : forall lg d codata ul g ul', compile_main lg d codata ul = Ok (g, ul') ->
  exists bty x stx body st',
    fterm_type (fdbody d) = Some bty /\
    fresh_var (mkst (used_binders (fdbody d) (fvars (fdctx d))) ul []) = Ok (x, stx) /\
    wc codata (fdname d) lg (fdbody d)
       (CMu CCns (new_id x) (CExit (CXVar CPrd (new_id x) (compile_ty bty)) (compile_ty bty)) (compile_ty bty)) stx
      = Ok (body, st') /\
    g = mkcd (new_id (fdname d)) (compile_ctx (fdctx d)) body :: st_lifted st' /\
    ul' = st_used_labels st'.
Proof.
  intros lg d codata ul g ul' H. unfold compile_main, run_def_body in H.
  destruct (fterm_type (fdbody d)) as [bty|]; [|discriminate]. unfold rbind in H.
  match type of H with match ?m with _ => _ end = _ => destruct m as [[body st']|] eqn:E end; [|discriminate].
  injection H as <- <-. minv E. exists bty, x, st, body, st'. auto.
Qed.

Lemma def_state_names : forall vars ul st, grows (mkst vars ul []) st ->
  exists gl, st_used_labels st = gl ++ ul /\ fresh_list gl ul /\ map cdname (st_lifted st) = map new_id gl.
Proof.
  intros vars ul st [_ [gl [l [El [Fl [Ll Nl]]]]]]. simpl in *. exists gl. rewrite app_nil_r in Ll. subst l. auto.
Qed.

Lemma compile_def_names : forall lg d codata ul g ul',
  compile_def lg d codata ul = Ok (g, ul') ->
  exists gl, ul' = gl ++ ul /\ fresh_list gl ul /\ map cdname g = map new_id (fdname d :: gl).
Proof.
  intros lg d codata ul g ul' H.
  destruct (compile_def_inv _ _ _ _ _ _ H) as [bty [a [sta [body [st' [_ [Ha [Hwc [-> ->]]]]]]]]].
  destruct (def_state_names (used_binders (fdbody d) (fvars (fdctx d))) ul st') as [gl [El [Fl Nl]]].
  { eapply grows_trans; [eapply mgrows_fresh_covar; exact Ha | eapply (proj1 (wc_cmp_grows _ _ _ _)); exact Hwc]. }
  exists gl. simpl. rewrite Nl. auto.
Qed.
Lemma compile_main_names : forall lg d codata ul g ul',
  compile_main lg d codata ul = Ok (g, ul') ->
  exists gl, ul' = gl ++ ul /\ fresh_list gl ul /\ map cdname g = map new_id (fdname d :: gl).
Proof.
  intros lg d codata ul g ul' H.
  destruct (compile_main_inv _ _ _ _ _ _ H) as [bty [x [stx [body [st' [_ [Hx [Hwc [-> ->]]]]]]]]].
  destruct (def_state_names (used_binders (fdbody d) (fvars (fdctx d))) ul st') as [gl [El [Fl Nl]]].
  { eapply grows_trans; [eapply mgrows_fresh_var; exact Hx | eapply (proj1 (wc_cmp_grows _ _ _ _)); exact Hwc]. }
  exists gl. simpl. rewrite Nl. auto.
Qed.

(* the definitions that come first (fix f929eb7: when main is called, the entry point under a fresh label
   and main compiled like any other definition): their names are main and generated labels, in some order *)
Lemma compile_main_group_names : forall lg called d codata ul g ul',
  compile_main_group lg called d codata ul = Ok (g, ul') ->
  exists gl, ul' = gl ++ ul /\ fresh_list gl ul /\ Permutation (map cdname g) (map new_id (fdname d :: gl)).
Proof.
  intros lg called d codata ul g ul' H. unfold compile_main_group in H.
  destruct (called && negb lg).
  - pose proof (fresh_name_fresh ul "main") as [Hfr Hsnd].
    destruct (fresh_name ul "main") as [nm ul1] eqn:Efn. simpl in Hfr, Hsnd. subst ul1.
    destruct (compile_main lg (entry_fdef d nm) codata (nm :: ul)) as [[e ule]|?] eqn:Ee; simpl in H; [|discriminate].
    destruct (compile_def lg d codata ule) as [[m ulm]|?] eqn:Em; simpl in H; [|discriminate].
    injection H as Hg Hul. subst g ul'.
    destruct (compile_main_names _ _ _ _ _ _ Ee) as [gle [Hule [[Hnde Hfe] Hne]]]. subst ule.
    destruct (compile_def_names _ _ _ _ _ _ Em) as [glm [Hulm [[Hndm Hfm] Hnm]]]. subst ulm.
    exists (glm ++ gle ++ [nm]). split; [rewrite <- !app_assoc; reflexivity|]. split.
    + apply fresh_list_app; [|rewrite <- app_assoc; exact (conj Hndm Hfm)].
      apply fresh_list_app; [|exact (conj Hnde Hfe)].
      split; [repeat constructor; intros [] | intros x [<-|[]]; exact Hfr].
    + rewrite map_app, Hne, Hnm. simpl. rewrite !map_app. simpl.
      change (new_id nm :: map new_id gle ++ new_id (fdname d) :: map new_id glm)
        with ((new_id nm :: map new_id gle) ++ new_id (fdname d) :: map new_id glm).
      eapply Permutation_trans; [apply Permutation_app_comm|]. simpl. apply perm_skip.
      apply Permutation_app_head. change (new_id nm :: map new_id gle) with ([new_id nm] ++ map new_id gle).
      apply Permutation_app_comm.
  - destruct (compile_main_names _ _ _ _ _ _ H) as [gl [H1 [H2 H3]]]. exists gl. rewrite H3. auto.
Qed.

(* the names of the output: those of the source definitions and the generated labels, in some order *)
Lemma names_step : forall (Ng A G1 F Bk FB : list cident) d,
  Permutation Ng (d :: G1) -> Permutation FB (Ng ++ F ++ Bk) ->
  Permutation (A ++ FB) ((d :: A ++ G1) ++ F ++ Bk).
Proof.
  intros Ng A G1 F Bk FB d H1 H2. rewrite H2, H1, (app_assoc A). apply Permutation_app_tail.
  symmetry. apply Permutation_middle.
Qed.

Lemma compile_defs_names : forall lg called defs codata ul front back res,
  compile_defs lg called defs codata ul front back = Ok res ->
  exists gl, fresh_list gl ul /\
    Permutation (map cdname res) (map new_id (map fdname defs ++ gl) ++ map cdname front ++ map cdname back).
Proof.
  intros lg called. induction defs as [|d r IH]; intros codata ul front back res H; simpl in H.
  - injection H as <-. exists []. split; [apply fresh_list_nil|].
    rewrite rev_append_rev, app_nil_r, map_app, map_rev. simpl. apply Permutation_app_head. symmetry. apply Permutation_rev.
  - assert (Hstep : forall g gl1 front' back', fresh_list gl1 ul ->
              Permutation (map cdname g) (map new_id (fdname d :: gl1)) ->
              Permutation (map cdname front' ++ map cdname back') (map cdname g ++ map cdname front ++ map cdname back) ->
              compile_defs lg called r codata (gl1 ++ ul) front' back' = Ok res ->
              exists gl, fresh_list gl ul /\
                Permutation (map cdname res) (map new_id (map fdname (d :: r) ++ gl) ++ map cdname front ++ map cdname back)).
    { intros g gl1 front' back' F1 Pg Pfb Hr. destruct (IH _ _ _ _ _ Hr) as [gl2 [F2 P2]].
      exists (gl2 ++ gl1). split; [apply fresh_list_app; assumption|].
      rewrite P2. simpl. rewrite (app_assoc (map fdname r)), (map_app new_id _ gl1).
      apply (names_step _ _ _ _ _ _ _ Pg Pfb). }
    destruct (String.eqb (fdname d) "main").
    + destruct (compile_main_group lg called d codata ul) as [[g ul']|e] eqn:E; simpl in H; [|discriminate].
      destruct (compile_main_group_names _ _ _ _ _ _ _ E) as [gl1 [-> [F1 Pg]]].
      apply (Hstep g gl1 (g ++ front) back F1 Pg); [|exact H]. rewrite map_app, <- app_assoc. reflexivity.
    + destruct (compile_def lg d codata ul) as [[g ul']|e] eqn:E; simpl in H; [|discriminate].
      destruct (compile_def_names _ _ _ _ _ _ E) as [gl1 [-> [F1 Ng]]].
      apply (Hstep g gl1 front (rev_append g back) F1); [rewrite Ng; reflexivity | | exact H].
      rewrite rev_append_rev, map_app, map_rev, <- Permutation_rev, Permutation_app_comm, <- app_assoc.
      apply Permutation_app_head. apply Permutation_app_comm.
Qed.

(* Definition names of the translated program are pairwise distinct whenever the source's are:
   user names are kept, lifted definitions carry generated labels, and generated labels never
   coincide with a user definition name or with another generated label (of any definition). *)
Theorem compile_prog_gen_def_names_distinct : forall lg p c,
  compile_prog_gen lg p = Ok c ->
  NoDup (map fdname (fcpdefs p)) ->
  NoDup (map cdname (cpdefs c)).
Proof.
  intros lg p c H Hnd. unfold compile_prog_gen in H.
  destruct (compile_defs lg _ (fcpdefs p) _ _ [] []) as [defs|e] eqn:E; simpl in H; [|discriminate].
  injection H as <-. simpl.
  destruct (compile_defs_names _ _ _ _ _ _ _ _ E) as [gl [[Hgl Hf] P]]. simpl in P. rewrite app_nil_r in P.
  eapply Permutation_NoDup; [symmetry; exact P|].
  apply Injective_map_NoDup; [intros a b; apply new_id_inj|].
  apply NoDup_app_intro; [exact Hnd | exact Hgl | intros x Hx Hg; exact (Hf x Hg Hx)].
Qed.
Theorem compile_prog_def_names_distinct : forall p c,
  compile_prog p = Ok c ->
  NoDup (map fdname (fcpdefs p)) ->
  NoDup (map cdname (cpdefs c)).
Proof. intros p c. apply compile_prog_gen_def_names_distinct. Qed.

(* The capture witness (corpus/fun/capture1.sc as the type checker
   annotates it - modelrun compares this value with the real CheckedProgram on every run) *)

Definition compiled_or_empty (p : fcprog) : cprog :=
  match compile_prog p with Ok c => c | Err _ => mkcp [] [] [] 0 end.

Definition compiled_before_fix_or_empty (p : fcprog) : cprog :=
  match compile_prog_before_fix p with Ok c => c | Err _ => mkcp [] [] [] 0 end.

(* REGRESSION STATEMENTS about the translation with the repairs of /repo switched off
   ([compile_prog_before_fix] = compile_prog_gen true; here the repair d5d4151 matters: without it the
   continuation is placed under let / pattern binders of names it mentions).  Source semantics: prints 12;
   the Core program produced by [compile_prog_before_fix]: prints 14 *)
Lemma capture_witness_fun : run_fun 200 capture_witness [] = ([(true, 12%Z)], OExit 0%Z).
Proof. vm_compute. reflexivity. Qed.
Lemma capture_witness_core_before_fix :
  run_core 200 (compiled_before_fix_or_empty capture_witness) [] = ([(true, 14%Z)], OExit 0%Z).
Proof. vm_compute. reflexivity. Qed.
(* ... and the CURRENT translation of the witness behaves like the source *)
Lemma capture_witness_core :
  run_core 200 (compiled_or_empty capture_witness) [] = ([(true, 12%Z)], OExit 0%Z).
Proof. vm_compute. reflexivity. Qed.

(* the witness is inside the property's precondition, and the syntactic detector fires on it *)
Lemma capture_witness_guards :
  annotated_fcprog capture_witness = true /\ effect_sequenced capture_witness = true /\
  shadowing_risk_prog capture_witness = true /\ barendregt capture_witness = false.
Proof. vm_compute. repeat split; reflexivity. Qed.

Theorem fun2core_capture_before_fix_lemma :
  exists (p : fcprog) (args : list Z) (c : cprog) (n : nat),
    annotated_fcprog p = true /\ effect_sequenced p = true /\
    compile_prog_before_fix p = Ok c /\
    defined (run_fun n p args) = true /\
    run_fun n p args <> run_core n c args.
Proof.
  exists capture_witness, [], (compiled_before_fix_or_empty capture_witness), 200%nat.
  split; [exact (proj1 capture_witness_guards)|]. split; [exact (proj1 (proj2 capture_witness_guards))|].
  split; [vm_compute; reflexivity|].
  rewrite capture_witness_fun, capture_witness_core_before_fix. split; [reflexivity | discriminate].
Qed.
Lemma capture_witness_fixed_lemma :
  compile_prog capture_witness = Ok (compiled_or_empty capture_witness) /\
  run_core 200 (compiled_or_empty capture_witness) [] = run_fun 200 capture_witness [] /\
  run_fun 200 capture_witness [] = ([(true, 12%Z)], OExit 0%Z).
Proof.
  split; [vm_compute; reflexivity|]. rewrite capture_witness_core, capture_witness_fun. split; reflexivity.
Qed.

(* The witness of the REPAIRED defect class (mistyped goto target, fixed in /repo by commit
   126604b): before the fix the translated program was not closed - a lifted definition was called
   with a covariable that is not in scope; regression statements *)
(* name-level closedness of a Core program: every free identifier of a definition body is a parameter *)
Definition cdef_closed (d : cdef) : bool :=
  forallb (fun b => existsb (cident_eqb (cbvar b)) (cvars (cdctx d))) (tfv_stmt (cdbody d) []).
Definition cprog_closed (c : cprog) : bool := forallb cdef_closed (cpdefs c).

Lemma goto_witness_fun : run_fun 200 goto_witness [] = ([(true, 4%Z)], OExit 0%Z).
Proof. vm_compute. reflexivity. Qed.
Lemma goto_witness_core_before_fix :
  run_core 200 (compiled_before_fix_or_empty goto_witness) [] = ([], OStuck "covar-unbound").
Proof. vm_compute. reflexivity. Qed.

(* REGRESSION STATEMENT about the translation with the repairs of /repo switched off
   ([compile_prog_before_fix]; here the repair 126604b matters: without it a goto target is typed with
   the goto expression's annotation): the translated witness is not closed and its Core run is stuck
   on the unbound covariable. *)
Theorem fun2core_goto_unbound_before_fix_lemma :
  exists (p : fcprog) (args : list Z) (c : cprog) (n : nat),
    annotated_fcprog p = true /\ effect_sequenced p = true /\ shadowing_risk_prog p = false /\
    goto_type_mismatch_prog p = true /\
    compile_prog_before_fix p = Ok c /\
    cprog_closed c = false /\
    defined (run_fun n p args) = true /\
    run_fun n p args <> run_core n c args.
Proof.
  exists goto_witness, [], (compiled_before_fix_or_empty goto_witness), 200%nat.
  do 6 (split; [vm_compute; reflexivity|]).
  rewrite goto_witness_fun, goto_witness_core_before_fix. split; [reflexivity | discriminate].
Qed.

(* ... and the CURRENT translation of the same witness is closed and behaves like the source *)
Lemma goto_witness_fixed_lemma :
  compile_prog goto_witness = Ok (compiled_or_empty goto_witness) /\
  cprog_closed (compiled_or_empty goto_witness) = true /\
  run_core 200 (compiled_or_empty goto_witness) [] = run_fun 200 goto_witness [] /\
  run_fun 200 goto_witness [] = ([(true, 4%Z)], OExit 0%Z).
Proof.
  split; [vm_compute; reflexivity|]. split; [vm_compute; reflexivity|].
  rewrite goto_witness_fun. split; [vm_compute; reflexivity | reflexivity].
Qed.

(* sanity: the capture witness's translation IS closed (that defect is a capture, not an escape) *)
Lemma capture_witness_closed : cprog_closed (compiled_or_empty capture_witness) = true.
Proof. vm_compute. reflexivity. Qed.

(* For property C19 (output size): a continuation that is not a leaf is never duplicated
   by `if` / `case`: it is lifted ONCE by `share`, and the branches are translated with a
   call-continuation whose size does not depend on the size of the original continuation. *)
Open Scope N_scope.
Lemma size_args_of_bindings : forall bs,
  (fix go (l : list carg) : N := match l with [] => 0 | y :: r => size_carg y + go r end) (map arg_of_binding bs)
  = N.of_nat (List.length bs).
Proof.
  induction bs as [|b r IH]; [reflexivity|].
  change (size_carg (arg_of_binding b) +
          (fix go (l : list carg) : N := match l with [] => 0 | y :: r => size_carg y + go r end) (map arg_of_binding r)
          = N.of_nat (S (List.length r))).
  rewrite IH, Nat2N.inj_succ. unfold arg_of_binding. destruct (cbchi b); cbn [size_carg size_cterm]; lia.
Qed.

Lemma size_mu_call : forall c v n args ty ty',
  size_cterm (CMu c v (CCall n args ty) ty') =
  1 + (1 + (fix go (l : list carg) : N := match l with [] => 0 | y :: r => size_carg y + go r end) args).
Proof. reflexivity. Qed.

Lemma share_size : forall cur cont st k st',
  share cur cont st = Ok (k, st') ->
  exists d, st_lifted st' = d :: st_lifted st /\
            size_cstmt (cdbody d) <= size_cterm cont + 2 /\
            size_cterm k = 2 + N.of_nat (List.length (cdctx d)).
Proof.
  intros cur cont st k st' H.
  destruct (share_spec _ _ _ _ _ H) as [var [ty [body [stv [name [n [Hm [_ [_ [_ [_ [_ [Hd ->]]]]]]]]]]]]].
  eexists. split; [exact Hd|]. cbn [cdbody cdctx]. split.
  - destruct cont; try (destruct Hm as [y [_ [_ [_ ->]]]]; cbn [size_cstmt size_cterm]; lia).
    destruct Hm as [_ [_ [-> _]]]. cbn [size_cterm]. lia.
  - rewrite size_mu_call, size_args_of_bindings. lia.
Qed.

(* `if`: with a non-leaf continuation, both branches receive the SAME small continuation k (a mu~
   whose body is one call with variable arguments) and the original continuation occurs once, in
   the lifted definition d *)
Theorem fun2core_ifc_shares_continuation : forall cur s ca cb wt we cont st r st',
  cont_is_small cont = false ->
  wc_ifc cur s ca cb wt we cont st = Ok (r, st') ->
  exists k st1 d a b t e st2 st3,
    share cur cont st = Ok (k, st1) /\
    st_lifted st1 = d :: st_lifted st /\
    size_cstmt (cdbody d) <= size_cterm cont + 2 /\
    size_cterm k = 2 + N.of_nat (List.length (cdctx d)) /\
    wt k st2 = Ok (t, st3) /\ we k st3 = Ok (e, st') /\
    r = CIfC (sort_of s) a b t e /\
    size_cstmt r = 1 + size_cterm a + match b with Some b' => size_cterm b' | None => 0 end
                   + size_cstmt t + size_cstmt e.
Proof.
  intros cur s ca cb wt we cont st r st' Hns H. unfold wc_ifc in H. rewrite Hns in H.
  minv H. destruct (share_size _ _ _ _ _ E) as [d [Hl [Hsz Hk]]].
  minv H. minv H. minv H. minv H. apply mret_inv in H. destruct H as [-> ->].
  exists x, st0, d, x0, x1, x2, x3, st2, st3. repeat split; auto.
Qed.

(* `case` with at least two clauses: likewise *)
Theorem fun2core_case_shares_continuation : forall cur wscrut sty n ccls cont st r st',
  cont_is_small cont = false -> (2 <= n)%nat ->
  wc_case cur wscrut sty n ccls cont st = Ok (r, st') ->
  exists k st1 d,
    share cur cont st = Ok (k, st1) /\
    st_lifted st1 = d :: st_lifted st /\
    size_cstmt (cdbody d) <= size_cterm cont + 2 /\
    size_cterm k = 2 + N.of_nat (List.length (cdctx d)) /\
    exists cls st2 ty, ccls k st1 = Ok (cls, st2) /\ wscrut (CXCase CCns cls ty) st2 = Ok (r, st').
Proof.
  intros cur wscrut sty n ccls cont st r st' Hns Hn H. unfold wc_case in H.
  assert (Hleb : Nat.leb n 1 = false) by (apply Nat.leb_gt; lia).
  rewrite Hleb, Hns in H. simpl in H.
  minv H. destruct (share_size _ _ _ _ _ E) as [d [Hl [Hsz Hk]]].
  minv H. minv H. apply expect_inv in E1. destruct E1 as [_ ->].
  exists x, st0, d. repeat split; auto. exists x0, st1, (compile_ty x1). split; [exact E0 | exact H].
Qed.
Close Scope N_scope.
