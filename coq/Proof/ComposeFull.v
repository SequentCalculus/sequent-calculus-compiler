(* C01: the composition with EVERY link discharged by a proved stage theorem - no stage hypothesis is left:
     Fun -> Core        C02_fun2core_correct_fragment2            (guard: prog_guard, definition names distinct)
     Core -> focused    C03_uniquify_focus_preserves_static       (guards: pre_check, focus_wf, cs_prog, static_ok)
     focused -> AxCut   C04_shrink_correct_fragment2              (guards: frag2_prog, decls_ok, wt_fs, unique_binders, ids_bounded)
     AxCut -> linear    C05 linearize_preserves                   (guard: prog_ok)
     linear -> x86-64   C06 x86_codegen_correct_linearized        (all statement forms; guards below)
   The first four are `middle_links` of Proof/ComposeAll.v.  Guards of the x86-64 link, on the programs the
   statement names:
     entry_ext (linearize a)     the entry definition takes integers (the arguments of asm_main)
     plain_names / plain_types   no definition or type is named '#...' (true of every name the pipeline makes)
     asm_wf cs = None            labels of the emitted code unique (C14; checked on the real output on every run)
     code_small cs               the code is smaller than 2^62 - 2^30 bytes
     heap_fits (linearize a) args    NOT a boolean on the program: the run stays inside the 32 MiB heap region of
                                 the ISA model (the source semantics has no memory bound).  Decided along a
                                 terminating run by `fits_run` (Proof/X86HSimExample.v). *)
From Coq Require Import List ZArith NArith String Ascii Bool Lia.
From SCC Require Import Base.Sexp Lang.AxSyn Lang.FunSyn Lang.CoreSyn Sem.AxSem Sem.CoreSem Sem.FunSem Sem.X86Sem Sem.X86Wf Sem.FsCheck Sem.FsFrag2
     Model.Backend Model.Fun2Core Model.Fun2CoreGuard Model.Focus Model.FocusCheck Model.FocusGuard Model.Shrink Model.Linearize Model.LinCheck
     Model.X86 Model.Runtime Model.PipelineGuards
     Proof.RuntimeProof Proof.LinSim Proof.Compose Proof.ComposeFocus Proof.ComposeF2C Proof.Compose2 Proof.ComposeAll
     Proof.Fun2CoreRel Proof.Fun2CoreProg Proof.FocusRun Proof.FocusFrag Proof.UqAeq Proof.UqCompose Proof.ShrinkSem Proof.ShrinkSimClosed
     Proof.X86SimAddr Proof.X86SimProg Proof.X86SimProgC Proof.X86HSimTop Proof.X86HSimCor Proof.X86HSimExample Proof.Fun2CoreExamples.
From SCC Require Proof.AxHeapTyping.
Import ListNotations.
Open Scope Z_scope.

Theorem compile_correct_full :
  forall (p : fcprog) (c : cprog) (f : fsprog) (a : prog) (cs : list xcode) (nargs : nat) (lc lc' : N)
         (args : list Z) (n : nat) (o : obs),
    (* source program: inside the guard of the Fun -> Core theorem *)
    NoDup (map fdname (fcpdefs p)) -> prog_guard p = true ->
    compile_prog p = Fun2Core.Ok c ->
    (* Core program: inside the guards of the uniquify + focus theorem *)
    pre_check c = true -> focus_wf c = true -> cs_prog c = true -> static_ok c = true ->
    focus_prog c = Backend.Ok f ->
    (* focused program: inside the guards of the shrink theorem *)
    frag2_prog f = true -> decls_ok f = true -> wt_fs f = true -> unique_binders f = true -> ids_bounded f = true ->
    shrink_prog f = SOk a ->
    (* AxCut program: the linearizer's precondition *)
    prog_ok a = true ->
    x86_compile (linearize a) lc = Backend.Ok (cs, nargs, lc') ->
    (* the x86-64 link: checks on the linearized program and on the emitted code; the run fits the heap region *)
    AxHeapTyping.entry_ext (linearize a) = true -> plain_names (linearize a) = true -> plain_types (linearize a) = true ->
    asm_wf cs = None -> code_small cs = true ->
    heap_fits (linearize a) args ->
    run_fun n p args = o -> out_ok o ->
    (exists outer inner, fst (run_x86 outer inner cs args) = o) /\
    (Forall (fun pz => in_i64 (snd pz)) (fst o) ->
     bytes_of_string (render_prints (fst o)) = flat_map runtime_bytes (fst o)).
Proof.
  intros p c f a cs nargs lc lc' args n o Hnd Hgd Hc Hpre Hwf Hcs ST Hf F1 F2 F3 F4 F5 Hs Hok Hx EE PN PT WF SM FIT Hrun Hout.
  destruct (middle_links p c f a args n o) as (D & m & R); auto.
  split; [exact (x86_codegen_correct_linearized a lc cs nargs lc' args m o Hok EE PN PT Hx WF SM FIT R D) | apply render_prints_is_runtime_output].
Qed.

(* non-vacuity: every guard, as one executable list *)
(* the guards of the x86-64 link on the model's stage outputs, with `heap_fits` decided by `fits_run fuel` *)
Definition x86_link_guards (p : fcprog) (args : list Z) (fuel : nat) : list bool :=
  match pipeline_stages p with
  | Some (_, _, a) =>
      let l := linearize a in
      match x86_compile l 0 with
      | Backend.Ok (cs, _, _) =>
          [AxHeapTyping.entry_ext l; plain_names l; plain_types l;
           match asm_wf cs with None => true | Some _ => false end; code_small cs; fits_run fuel l args]
      | Backend.Err _ => [false]
      end
  | None => [false]
  end.
Definition all_guards (p : fcprog) (args : list Z) (fuel : nat) : bool :=
  forallb (fun b => b) (pipeline_guards p) && forallb (fun b => b) (x86_link_guards p args fuel).

(* the five example programs of Proof/Fun2CoreExamples.v (mutual recursion; shared continuations; lists with case
   in tail and non-tail position; labels and goto; a corecursive stream) satisfy every guard *)
Lemma all_guards_examples :
  all_guards ex_calls [5] 5000 = true /\ all_guards ex_shared [5] 5000 = true /\ all_guards ex_data [6] 5000 = true /\
  all_guards ex_labels [5] 5000 = true /\ all_guards ex_codata [4] 5000 = true.
Proof. vm_compute. repeat split; reflexivity. Qed.

(* the executable guards imply the hypotheses of the theorem: the theorem, for guard-checked programs *)
Fixpoint nodup_b (l : list string) : bool :=
  match l with [] => true | x :: r => negb (existsb (String.eqb x) r) && nodup_b r end.
Lemma nodup_b_sound (l : list string) : nodup_b l = true -> NoDup l.
Proof.
  induction l as [|x r IH]; cbn; [constructor|]. intros H. apply andb_true_iff in H as [N R]. constructor; [|auto].
  intros IN. apply negb_true_iff in N. assert (E : existsb (String.eqb x) r = true); [|congruence].
  apply existsb_exists. exists x. split; [exact IN|apply String.eqb_refl].
Qed.

Theorem compile_correct_checked :
  forall (p : fcprog) (args : list Z) (fuel n : nat) (o : obs),
    NoDup (map fdname (fcpdefs p)) -> all_guards p args fuel = true ->
    run_fun n p args = o -> out_ok o ->
    exists c f a cs nargs lc',
      pipeline_stages p = Some (c, f, a) /\ x86_compile (linearize a) 0 = Backend.Ok (cs, nargs, lc') /\
      exists outer inner, fst (run_x86 outer inner cs args) = o.
Proof.
  intros p args fuel n o ND AG RUN OK. unfold all_guards in AG. apply andb_true_iff in AG as [PG XG].
  unfold pipeline_guards in PG. unfold x86_link_guards in XG.
  destruct (pipeline_stages p) as [[[c f] a]|] eqn:PS; [|discriminate].
  destruct (x86_compile (linearize a) 0) as [[[cs nargs] lc']|] eqn:XC; [|discriminate].
  exists c, f, a, cs, nargs, lc'. split; [reflexivity|]. split; [exact XC|].
  unfold pipeline_stages in PS.
  destruct (compile_prog p) as [c0|] eqn:CP; [|discriminate].
  destruct (focus_prog c0) as [f0|] eqn:FP; [|discriminate].
  destruct (shrink_prog f0) as [a0|] eqn:SP; try discriminate.
  inversion PS; subst c0 f0 a0; clear PS.
  cbn [forallb] in PG, XG. repeat (apply andb_true_iff in PG as [? PG]). repeat (apply andb_true_iff in XG as [? XG]).
  destruct (asm_wf cs) eqn:WF; [discriminate|].
  eapply (compile_correct_full p c f a cs nargs 0%N lc' args n o); eauto.
  eapply fits_run_sound; eauto.
Qed.

(* instance: the theorem applied to the list program; and what evaluation shows for both ends *)
Lemma compile_correct_full_instance :
  exists c f a cs nargs lc',
    pipeline_stages ex_data = Some (c, f, a) /\ x86_compile (linearize a) 0 = Backend.Ok (cs, nargs, lc') /\
    exists outer inner, fst (run_x86 outer inner cs [6]) = ([(true, 21); (true, 36)], OExit 0).
Proof.
  assert (R : run_fun 2000 ex_data [6] = ([(true, 21); (true, 36)], OExit 0)) by (vm_compute; reflexivity).
  eapply (compile_correct_checked ex_data [6] 5000 2000); [| |exact R|exists 0; reflexivity].
  - apply nodup_b_sound. vm_compute. reflexivity.
  - exact (proj1 (proj2 (proj2 all_guards_examples))).
Qed.
