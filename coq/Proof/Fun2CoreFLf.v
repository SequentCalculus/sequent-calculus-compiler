(* Proof/Fun2CoreFLf  -  the fundamental lemma: print, conditionals (tail and non-tail position: the
   continuation is shared through a lifted definition). *)
From Coq Require Import List ZArith NArith String Bool Lia.
From SCC Require Import Base.Sexp Lang.SynUtil Lang.FunSyn Lang.FunTy Lang.CoreSyn.
From SCC Require Import Sem.AxSem Sem.CoreSem Sem.FunSem Model.Fun2Core.
From SCC Require Import Proof.Fun2CoreProof Proof.Fun2CoreSim Proof.Fun2CoreTfv Proof.Fun2CoreInv Proof.Fun2CoreUB
     Proof.Fun2CoreRel Proof.Fun2CoreFLa Proof.Fun2CoreFLb Proof.Fun2CoreFLc Proof.Fun2CoreFLd Proof.Fun2CoreFLe.
Import ListNotations.
Open Scope string_scope.
Open Scope list_scope.


Section FLf.
  Variable p : fcprog.
  Variable cp : cprog.
  Hypothesis Hcod : cpcodata cp = codata_of p.

  Lemma fl_print : forall N nl a next ty, flc p cp N a -> flw p cp N next ->
    flw p cp N (FPrint nl a next ty).
  Proof.
    intros N nl a next ty Ha Hnext.
    intros n Hn G cur cont st s st' e ce k Hwc Hf Hkd Hws Hl HG Hbn Hni Hsh He HCK.
      rewrite wc_unfold in Hwc. apply wc_print_inv in Hwc. destruct Hwc as [a' [st1 [next' [Hca [Hwn Es]]]]]. subst s.
      simpl in Hf, Hkd, Hws.
      apply andb_prop in Hf. destruct Hf as [Hf1 Hf2]. apply andb_prop in Hws. destruct Hws as [Hw1 Hw2].
      apply andb_prop in Hkd. destruct Hkd as [Hkd Hsame]. apply andb_prop in Hkd. destruct Hkd as [Hkd Hta].
      apply andb_prop in Hkd. destruct Hkd as [Hka Hkn]. apply negb_true_iff in Hta. apply Bool.eqb_prop in Hsame.
      assert (Hkind : tkind p (FPrint nl a next ty) = tkind p next) by (unfold tkind at 1; simpl; symmetry; exact Hsame).
      rewrite Hkind in *.
      assert (Hg1 : grows st st1) by (eapply cmp_grows; exact Hca).
      assert (Hg2 : grows st1 st') by (eapply wc_grows; exact Hwn).
      destruct n as [|n1]; [apply sim_zero|].
      eapply sim_fstep; [reflexivity|]. apply sim_cstep. simpl.
      apply (Ha n1 ltac:(lia) G cur CI64 st a' st1 e ce _ _ Hca Hf1 Hka Hta Hw1).
      - eapply lifted_ok_grows; eauto.
      - exact HG.
      - intros z Hz. apply Hbn. simpl. apply in_or_app. left. exact Hz.
      - reflexivity.
      - eapply erel_weaken; [exact He | | lia]. apply Sof_incl. intros bb Hx. apply fvs_print. left. exact Hx.
      - apply Kb_int; [intros; eexists; reflexivity|]. intros j1 x Hj. apply sim_cstep. simpl.
        eapply sim_out; [reflexivity|].
        apply (Hnext j1 ltac:(lia) G cur cont st1 next' st' e ce k Hwn Hf2 Hkn Hw2 Hl).
        + eapply Gused_grows; eauto.
        + eapply incl_grows; [|exact Hg1]. intros z Hz. apply Hbn. simpl. apply in_or_app. right. exact Hz.
        + eapply names_in_grows; eauto.
        + exact Hsh.
        + eapply erel_weaken; [exact He | | lia]. apply Sof_incl. intros bb Hx. apply fvs_print. right. exact Hx.
        + eapply CK_transfer; [exact Hsh | exact HCK | | lia]. intros z0 _ Hz0. split; [|reflexivity].
          revert Hz0. apply Sof_incl. intros bb Hx. apply fvs_print. right. exact Hx.
  Qed.

  Lemma share_or_keep_CK : forall n cur (small : bool) cont st cont1 st0 k ce (S : cident -> Prop),
    (if small then cont1 = cont /\ st0 = st else share cur cont st = Ok (cont1, st0)) ->
    (small = false -> cont_is_small cont = false) ->
    cont_shape cp false cont -> names_in (cnames (fvt cont)) st -> lifted_ok cp st0 ->
    CK p cp n false k cont ce S ->
    CK p cp n false k cont1 ce S /\ cont_shape cp false cont1 /\ grows st st0 /\
    (forall bb, In bb (fvt cont1) -> In bb (fvt cont)).
  Proof.
    intros n cur small cont st cont1 st0 k ce S Hshare Hns Hsh Hni Hl HCK. destruct small.
    - destruct Hshare; subst. split; [exact HCK|]. split; [exact Hsh|]. split; [apply grows_refl | auto].
    - destruct (share_CK p cp n cur cont st cont1 st0 k ce S Hshare (Hns eq_refl) Hsh Hni Hl HCK) as [H1 H2].
      split; [exact H1|]. split; [exact H2|]. split; [eapply share_grows; exact Hshare|].
      apply (share_fvt cur cont st cont1 st0 Hshare). apply (cont_shape_cns cp false). exact Hsh.
  Qed.

  Lemma fl_ifc : forall N so a b t1 t2 ty,
    flc p cp N a -> match b with Some b' => flc p cp N b' | None => True end ->
    flw p cp N t1 -> flw p cp N t2 ->
    flw p cp N (FIfC so a b t1 t2 ty).
  Proof.
    intros N so a b t1 t2 ty Ha Hb0 H1 H2.
    intros n Hn G cur cont st s st' e ce k Hwc Hf Hkd Hws Hl HG Hbn Hni Hsh He HCK.
      rewrite wc_unfold in Hwc. apply wc_ifc_inv in Hwc.
      destruct Hwc as [cont1 [st0 [a' [sta [b' [stb [t' [stt [e' [Hshare [Hca [Hcb [Hwt [Hwe Es]]]]]]]]]]]]]]. subst s.
      simpl in Hf, Hkd, Hws.
      apply andb_prop in Hf. destruct Hf as [Hf Hf3]. apply andb_prop in Hf. destruct Hf as [Hf Hf2].
      apply andb_prop in Hf. destruct Hf as [Hf1 Hfb].
      apply andb_prop in Hws. destruct Hws as [Hw Hw3]. apply andb_prop in Hw. destruct Hw as [Hw Hw2].
      apply andb_prop in Hw. destruct Hw as [Hw1 Hwb].
      apply andb_prop in Hkd. destruct Hkd as [Hkd Hkty]. apply andb_prop in Hkd. destruct Hkd as [Hkd Hkt2].
      apply andb_prop in Hkd. destruct Hkd as [Hkd Hkt1]. apply andb_prop in Hkd. destruct Hkd as [Hkd Hkta].
      apply andb_prop in Hkd. destruct Hkd as [Hkd Hk2]. apply andb_prop in Hkd. destruct Hkd as [Hkd Hk1].
      apply andb_prop in Hkd. destruct Hkd as [Hka Hkb].
      apply negb_true_iff in Hkty. apply negb_true_iff in Hkt2. apply negb_true_iff in Hkt1. apply negb_true_iff in Hkta.
      assert (Hkind : tkind p (FIfC so a b t1 t2 ty) = false) by (unfold tkind; simpl; exact Hkty).
      rewrite Hkind in *.
      assert (Hga : grows st0 sta) by (eapply cmp_grows; exact Hca).
      assert (Hgb : grows sta stb).
      { destruct b as [b0|]; [destruct Hcb as [b1 [Hcb _]]; eapply cmp_grows; exact Hcb | destruct Hcb; subst; apply grows_refl]. }
      assert (Hgt : grows stb stt) by (eapply wc_grows; exact Hwt).
      assert (Hge : grows stt st') by (eapply wc_grows; exact Hwe).
      assert (Lstt : lifted_ok cp stt) by (eapply lifted_ok_grows; [exact Hl | exact Hge]).
      assert (Lstb : lifted_ok cp stb) by (eapply lifted_ok_grows; [exact Lstt | exact Hgt]).
      assert (Lsta : lifted_ok cp sta) by (eapply lifted_ok_grows; [exact Lstb | exact Hgb]).
      assert (Lst0 : lifted_ok cp st0) by (eapply lifted_ok_grows; [exact Lsta | exact Hga]).
      destruct (share_or_keep_CK n cur (cont_is_small cont) cont st cont1 st0 k ce (Sof (fvs (CIfC (sort_of so) a' b' t' e'))) Hshare (fun E => E) Hsh Hni Lst0 HCK) as [HCK1 [Hsh1 [Hg0 Hsub]]].
      assert (G1 : grows st sta) by (eapply grows_trans; [exact Hg0 | exact Hga]).
      assert (G2 : grows st stb) by (eapply grows_trans; [exact G1 | exact Hgb]).
      assert (G3 : grows st stt) by (eapply grows_trans; [exact G2 | exact Hgt]).
      (* the two branches, at any smaller index *)
      assert (Hbr : forall i, (i < n)%nat -> forall c : bool,
                sim p cp i (FEval (if c then t1 else t2) e k) (SNext (Run (if c then t' else e') ce))).
      { intros i Hi c. destruct c.
        - rewrite <- Hkt1 in Hsh1, HCK1. apply (H1 i ltac:(lia) G cur cont1 stb t' stt e ce k Hwt Hf2 Hk1 Hw2).
          + exact Lstt.
          + eapply Gused_grows; [exact HG | exact G2].
          + eapply incl_grows; [|exact G2].
            intros z Hz. apply Hbn. simpl. rewrite !in_app_iff. tauto.
          + intros x Hx. apply in_cnames_inv in Hx. destruct Hx as [bb [Hbb E]]. subst x.
            eapply names_in_grows; [exact Hni | exact G2 | apply in_cnames; apply Hsub; exact Hbb].
          + exact Hsh1.
          + eapply erel_weaken; [exact He | | lia]. apply Sof_incl. intros bb Hx. apply fvs_ifc. right. right. left. exact Hx.
          + eapply CK_transfer; [exact Hsh1 | exact HCK1 | | lia]. intros z0 _ Hz0. split; [|reflexivity].
            revert Hz0. apply Sof_incl. intros bb Hx. apply fvs_ifc. right. right. left. exact Hx.
        - rewrite <- Hkt2 in Hsh1, HCK1. apply (H2 i ltac:(lia) G cur cont1 stt e' st' e ce k Hwe Hf3 Hk2 Hw3 Hl).
          + eapply Gused_grows; [exact HG | exact G3].
          + eapply incl_grows; [|exact G3].
            intros z Hz. apply Hbn. simpl. rewrite !in_app_iff. tauto.
          + intros x Hx. apply in_cnames_inv in Hx. destruct Hx as [bb [Hbb E]]. subst x.
            eapply names_in_grows; [exact Hni | exact G3 | apply in_cnames; apply Hsub; exact Hbb].
          + exact Hsh1.
          + eapply erel_weaken; [exact He | | lia]. apply Sof_incl. intros bb Hx. apply fvs_ifc. right. right. right. exact Hx.
          + eapply CK_transfer; [exact Hsh1 | exact HCK1 | | lia]. intros z0 _ Hz0. split; [|reflexivity].
            revert Hz0. apply Sof_incl. intros bb Hx. apply fvs_ifc. right. right. right. exact Hx. }
      destruct n as [|n1]; [apply sim_zero|].
      eapply sim_fstep; [reflexivity|]. apply sim_cstep. simpl.
      apply (Ha n1 ltac:(lia) G cur CI64 st0 a' sta e ce _ _ Hca Hf1 Hka Hkta Hw1).
      - exact Lsta.
      - eapply Gused_grows; [exact HG | exact Hg0].
      - eapply incl_grows; [|exact Hg0]. intros z Hz. apply Hbn. simpl. rewrite !in_app_iff. tauto.
      - reflexivity.
      - eapply erel_weaken; [exact He | | lia]. apply Sof_incl. intros bb Hx. apply fvs_ifc. left. exact Hx.
      - apply Kb_int; [intros; eexists; reflexivity|]. intros j1 x Hj.
        destruct b as [b0|].
        + (* two operands *)
          destruct Hcb as [b1 [Hcb Eb]]. subst b'.
          apply andb_prop in Hkb. destruct Hkb as [Hkb Hktb]. apply negb_true_iff in Hktb.
          eapply sim_fstep; [reflexivity|]. apply sim_cstep. simpl.
          apply (Hb0 j1 ltac:(lia) G cur CI64 sta b1 stb e ce _ _ Hcb Hfb Hkb Hktb Hwb).
          * exact Lstb.
          * eapply Gused_grows; [exact HG | exact G1].
          * eapply incl_grows; [|exact G1].
            intros z Hz. apply Hbn. simpl. rewrite !in_app_iff. tauto.
          * reflexivity.
          * eapply erel_weaken; [exact He | | lia]. apply Sof_incl. intros bb Hx. apply fvs_ifc. right. left. exact Hx.
          * apply Kb_int; [intros; eexists; reflexivity|]. intros i1 y Hi.
            eapply sim_fstep; [reflexivity|]. apply sim_cstep. simpl. rewrite ax_ifsort_sort_of.
            apply (Hbr i1 ltac:(lia) (eval_cmp (ax_fifsort so) x y)).
        + (* comparison with zero *)
          destruct Hcb as [Eb Est]. subst b' stb.
          eapply sim_fstep; [reflexivity|]. apply sim_cstep. simpl. rewrite ax_ifsort_sort_of.
          apply (Hbr j1 ltac:(lia) (eval_cmp (ax_fifsort so) x 0)).
  Qed.
End FLf.
