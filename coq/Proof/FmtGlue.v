(* C16: the token stream of the printed document.
     tokens (d_prog c p) = T_prog p      for every configuration c and every parser-shaped p
   i.e. the document model (Printer.v) followed by the lexer's gluing of `cmp 0`, `0 cmp`, `: cns`
   yields exactly the direct token printer of FmtDefs.v.  Layout (width, indentation,
   allow_linebreaks, the short-scrutinee variant of destructor chains) does not matter. *)
From Coq Require Import List ZArith NArith String Ascii Bool Lia.
From SCC Require Import Base.Sexp Lang.SynUtil Lang.FunSyn Model.Printer Model.Parser Model.FmtClass
  Proof.FmtDefs Proof.FmtWf.
Import ListNotations.
Local Open Scope list_scope.

(* ---------- atoms of a document, continuation style ---------- *)
Fixpoint ak (d : doc) (k : list atom) : list atom :=
  match d with
  | DNil | DSpace | DLine | DLine_ | DHardline => k
  | DText a => a :: k
  | DComment => AComment :: k
  | DAppend a b => ak a (ak b k)
  | DNest _ d | DGroup d | DAlign d => ak d k
  end.
Lemma flat_acc_app d acc : flat_acc d acc = flat d ++ acc.
Proof.
  unfold flat. revert acc. induction d; intros acc; cbn [flat_acc]; try reflexivity; auto.
  rewrite IHd1, (IHd1 (flat_acc d2 [])), IHd2. now rewrite app_assoc.
Qed.
Lemma atoms_of_app l1 l2 : atoms_of (l1 ++ l2) = atoms_of l1 ++ atoms_of l2.
Proof. induction l1 as [|[] l1 IH]; cbn; auto. now rewrite IH. Qed.
Lemma ak_spec d : forall k, ak d k = atoms d ++ k.
Proof.
  unfold atoms, flat. induction d; intros k; cbn [ak flat_acc]; try reflexivity; try (apply IHd).
  rewrite (flat_acc_app d1 (flat_acc d2 [])). unfold flat. rewrite atoms_of_app, <- app_assoc.
  rewrite IHd1, IHd2. reflexivity.
Qed.
Lemma atoms_ak d : atoms d = ak d [].
Proof. rewrite ak_spec. now rewrite app_nil_r. Qed.

(* a1 , a2 , .. , an  on atoms *)
Fixpoint acommas (fs : list (list atom -> list atom)) (k : list atom) : list atom :=
  match fs with
  | [] => k
  | [f] => f k
  | f :: r => f (ASym SComma :: acommas r k)
  end.
Lemma ak_intersperse_from sep acc l k :
  ak (intersperse_from acc l sep) k = ak acc (fold_right (fun d r => ak sep (ak d r)) k l).
Proof.
  revert acc. induction l as [|d l IH]; intros acc; cbn [intersperse_from fold_right]; [reflexivity|].
  rewrite IH. reflexivity.
Qed.
Lemma ak_comma_sep c (l : list doc) k : ak (comma_sep c l) k = acommas (map ak l) k.
Proof.
  unfold comma_sep, intersperse. destruct l as [|d l]; [reflexivity|].
  cbn [map]. rewrite ak_intersperse_from. cbn [ak].
  set (sep := if plinebreaks c then DAppend (dsym SComma) DLine else DAppend (dsym SComma) DSpace).
  assert (Hsep : forall X, ak sep X = ASym SComma :: X)
    by (intros; subst sep; destruct (plinebreaks c); reflexivity).
  clearbody sep. revert d. induction l as [|e l IH]; intros d; [reflexivity|].
  cbn [map fold_right]. rewrite Hsep. cbn [ak]. rewrite IH. reflexivity.
Qed.
(* [ sep_ list sep_ ] inside brackets: d_args, d_ctx, d_namectx, .. all have this shape *)
Lemma ak_sep_ c k : ak (sep_ c) k = k.
Proof. unfold sep_. destruct (plinebreaks c); reflexivity. Qed.

(* ---------- glue, one atom at a time ---------- *)
Definition nocmp (k : list atom) : bool := match k with ASym (SCmp _) :: _ => false | _ => true end.
Definition nozero (k : list atom) : bool := match k with ANum 0 :: _ => false | _ => true end.
Definition nocns (k : list atom) : bool := match k with AWord s :: _ => negb (String.eqb s "cns") | _ => true end.
Lemma glue_word s k : glue (AWord s :: k) = word_token s :: glue k.
Proof. reflexivity. Qed.
Lemma glue_kw kw k : glue (AWord (kw_text kw) :: k) = TKw kw :: glue k.
Proof. destruct kw; reflexivity. Qed.
Lemma glue_num_pos n k : n <> 0%N -> glue (ANum n :: k) = TNum n :: glue k.
Proof. destruct n; [congruence|reflexivity]. Qed.
Lemma glue_num0 k : nocmp k = true -> glue (ANum 0 :: k) = TNum 0 :: glue k.
Proof. destruct k as [|[| |[]|] ?]; try discriminate; reflexivity. Qed.
Definition plain_sym (y : sym) : bool := match y with SCmp _ | SColon => false | _ => true end.
Lemma glue_sym y k : plain_sym y = true -> glue (ASym y :: k) = TSym y :: glue k.
Proof. destruct y; try discriminate; reflexivity. Qed.
Lemma glue_cmp c k : nozero k = true -> glue (ASym (SCmp c) :: k) = TSym (SCmp c) :: glue k.
Proof. destruct k as [|[|[]| |] ?]; try discriminate; reflexivity. Qed.
Lemma glue_cmpz c k : glue (ASym (SCmp c) :: ANum 0 :: k) = TCmpZ c :: glue k.
Proof. reflexivity. Qed.
Lemma glue_colon k : nocns k = true -> glue (ASym SColon :: k) = TSym SColon :: glue k.
Proof.
  destruct k as [|[s| | |] ?]; try reflexivity. intros H. cbn [glue].
  destruct (String.eqb_spec s "cns"%string) as [->|E]; [discriminate|reflexivity].
Qed.
Lemma glue_colon_cns k : glue (ASym SColon :: AWord "cns"%string :: k) = TColonCns :: glue k.
Proof. reflexivity. Qed.
Lemma glue_comment k : glue (AComment :: k) = glue k.
Proof. reflexivity. Qed.
Lemma glue_zcmp c k : glue (ANum 0 :: ASym (SCmp c) :: k) = TZCmp c :: glue k.
Proof. reflexivity. Qed.

Lemma ak_intersperse sep (l : list doc) k :
  (forall X, ak sep X = ASym SComma :: X) -> ak (intersperse l sep) k = acommas (map ak l) k.
Proof.
  intros Hsep. unfold intersperse. destruct l as [|d l]; [reflexivity|].
  rewrite ak_intersperse_from. cbn [ak map].
  revert d. induction l as [|e l IH]; intros d; [reflexivity|].
  cbn [map fold_right]. rewrite Hsep. rewrite IH. reflexivity.
Qed.
Lemma map_ak_group (l : list doc) : map ak (map DGroup l) = map ak l.
Proof. induction l; cbn [map]; [reflexivity|]. now rewrite IHl. Qed.
Lemma ak_args c (l : list doc) k : ak (d_args c l) k = acommas (map ak l) k.
Proof.
  unfold d_args. destruct l as [|d l]; [reflexivity|].
  cbn [ak]. rewrite ak_sep_, ak_comma_sep, ak_sep_. reflexivity.
Qed.
Lemma ak_optargs c (l : list doc) k :
  ak (d_optargs c l) k = match l with [] => k | _ => ASym SLPar :: acommas (map ak l) (ASym SRPar :: k) end.
Proof.
  unfold d_optargs. destruct l as [|d l]; [reflexivity|].
  unfold parens, enclose, dsym. cbn [ak]. rewrite ak_args. reflexivity.
Qed.
Lemma ak_clauses c (l : list doc) k :
  ak (d_clauses c l) k = ASym SLBrace :: acommas (map ak l) (ASym SRBrace :: k).
Proof.
  unfold d_clauses, braces, enclose, dsym. destruct l as [|a [|b l]]; try reflexivity.
  cbn [ak]. rewrite ak_intersperse by reflexivity. rewrite map_ak_group. reflexivity.
Qed.

Lemma glue_acommas {X} (A : X -> list atom -> list atom) (T : X -> list token -> list token) (xs : list X) k :
  (forall x, In x xs -> forall k', nocmp k' = true -> glue (A x k') = T x (glue k')) ->
  nocmp k = true ->
  glue (acommas (map A xs) k) = commas (map T xs) (glue k).
Proof.
  intros H Hk. induction xs as [|x xs IH]; [reflexivity|].
  assert (IH' := IH (fun y Hy => H y (or_intror Hy))).
  destruct xs as [|y ys].
  - cbn [map acommas commas]. apply H; [now left | assumption].
  - change (acommas (map A (x :: y :: ys)) k) with (A x (ASym SComma :: acommas (map A (y :: ys)) k)).
    change (commas (map T (x :: y :: ys)) (glue k)) with (T x (TSym SComma :: commas (map T (y :: ys)) (glue k))).
    rewrite H by (try reflexivity; now left). rewrite glue_sym by reflexivity. now rewrite IH'.
Qed.

(* l x1 , .. , xn r  between plain brackets, and the optional form that vanishes for the empty list *)
Lemma glue_bracketed {X} (l r : sym) (A : X -> list atom -> list atom) (T : X -> list token -> list token) xs k :
  plain_sym l = true -> plain_sym r = true ->
  (forall x, In x xs -> forall k', nocmp k' = true -> glue (A x k') = T x (glue k')) ->
  glue (ASym l :: acommas (map A xs) (ASym r :: k)) = bracketed l r (map T xs) (glue k).
Proof.
  intros Hl Hr H. unfold bracketed. rewrite glue_sym by assumption. f_equal.
  rewrite (glue_acommas A T); [now rewrite glue_sym by assumption | exact H | destruct r; try discriminate; reflexivity].
Qed.
Lemma glue_opt_bracketed {X} (l r : sym) (A : X -> list atom -> list atom) (T : X -> list token -> list token) xs k :
  plain_sym l = true -> plain_sym r = true ->
  (forall x, In x xs -> forall k', nocmp k' = true -> glue (A x k') = T x (glue k')) ->
  glue (match xs with [] => k | _ => ASym l :: acommas (map A xs) (ASym r :: k) end)
  = opt_bracketed l r (map T xs) (glue k).
Proof.
  intros Hl Hr H. destruct xs as [|x xs']; [reflexivity|]. now apply (glue_bracketed l r A T (x :: xs')).
Qed.
Lemma lower_not_upper ch : is_lower ch = true -> is_upper ch = false.
Proof.
  unfold is_lower, is_upper. intros H. apply andb_prop in H. destruct H as [H1 H2].
  apply Nat.leb_le in H1. apply andb_false_intro2. apply Nat.leb_gt. lia.
Qed.
Lemma word_token_lower v : lower_ok v = true -> word_token v = TLower v.
Proof.
  unfold lower_ok, word_token. intros H. apply andb_prop in H. destruct H as [H1 H2].
  destruct (kw_of_string v); [discriminate|]. destruct v as [|ch r]; [discriminate|].
  apply andb_prop in H1. destruct H1 as [H1 _]. now rewrite lower_not_upper.
Qed.
Lemma kw_text_not_upper k ch r : is_upper ch = true -> String.eqb (kw_text k) (String ch r) = false.
Proof.
  intros Hc. destruct k; cbn [kw_text String.eqb];
    match goal with
    | |- (if Ascii.eqb ?x ch then _ else _) = false =>
        destruct (Ascii.eqb_spec x ch) as [E|E]; [subst ch; cbv in Hc; discriminate | reflexivity]
    end.
Qed.
Lemma kw_of_upper ch r : is_upper ch = true -> kw_of_string (String ch r) = None.
Proof.
  intros Hc. unfold kw_of_string, all_kw. cbn [find].
  rewrite !kw_text_not_upper by assumption. reflexivity.
Qed.
Lemma word_token_upper n : upper_ok n = true -> word_token n = TUpper n.
Proof.
  unfold upper_ok, word_token. destruct n as [|ch r]; [discriminate|]. intros H.
  apply andb_prop in H. destruct H as [H1 _]. rewrite kw_of_upper by assumption. now rewrite H1.
Qed.
Lemma upper_not_cns n : upper_ok n = true -> String.eqb n "cns" = false.
Proof.
  unfold upper_ok. destruct n as [|ch r]; [discriminate|]. intros H. apply andb_prop in H. destruct H as [H1 _].
  cbn [String.eqb]. destruct (Ascii.eqb_spec ch "c") as [E|E]; [subst ch; cbv in H1; discriminate|reflexivity].
Qed.

(* ---------- the documents of the forms that carry lists ---------- *)
(* ([cbn] would leave the maps over subterms as anonymous fixpoints) *)
Section DocEquations.
Variable c : pcfg.
Lemma d_ty_decl n l : d_ty c (FDecl n l) = DAppend (word n) (d_tyargs c l).
Proof. reflexivity. Qed.
Lemma d_term_call f args r :
  d_term c (FCall f args r) = DAppend (word f) (DGroup (parens (d_args c (map (d_term c) args)))).
Proof. reflexivity. Qed.
Lemma d_term_ctor x args r :
  d_term c (FCtor x args r) = DAppend (word x) (DGroup (d_optargs c (map (d_term c) args))).
Proof. reflexivity. Qed.
Lemma d_term_dtor s x targs args r :
  d_term c (FDtor s x targs args r) =
  let args' := DGroup (d_optargs c (map (d_term c) args)) in
  if short_scrutinee c s
  then DAppend (DAppend (DAppend (DAppend (d_term c s) (dsym SDot)) (word x)) (d_tyargs c targs)) args'
  else DAlign (DNest (pindent c) (DAppend (DAppend (DAppend (DAppend (DAppend (d_term c s) DLine_) (dsym SDot)) (word x)) (d_tyargs c targs)) args')).
Proof. reflexivity. Qed.
Lemma d_term_case s targs cls r :
  d_term c (FCase s targs cls r) =
  if is_dtor s
  then DAlign (DNest (pindent c) (DAppend (DAppend (DAppend (DAppend (DAppend (DAppend (d_term c s) DLine_) (dsym SDot)) (word "case")) (d_tyargs c targs)) DSpace) (d_clauses c (map (d_clause c) cls))))
  else DAppend (DAppend (DAppend (DAppend (DAppend (d_term c s) (dsym SDot)) (word "case")) (d_tyargs c targs)) DSpace) (d_clauses c (map (d_clause c) cls)).
Proof. reflexivity. Qed.
Lemma d_term_new cls r :
  d_term c (FNew cls r) = DAppend (DAppend (word "new") DSpace) (d_clauses c (map (d_clause c) cls)).
Proof. reflexivity. Qed.
(* type arguments, name lists and type-parameter lists are the same document: an optional bracketed list *)
Definition opt_list_doc (l r : sym) (ds : list doc) : doc :=
  match ds with
  | [] => DNil
  | _ => DGroup (enclose l r (DAppend (DNest (pindent c) (DAppend (sep_ c) (comma_sep c ds))) (sep_ c)))
  end.
Lemma d_ctx_args g : d_ctx c g = d_args c (map (d_binding c) g).
Proof. destruct g; reflexivity. Qed.
Lemma d_tyargs_list targs : d_tyargs c targs = opt_list_doc SLBrack SRBrack (map (d_ty c) targs).
Proof. destruct targs; reflexivity. Qed.
Lemma d_namectx_list names : d_namectx c names = opt_list_doc SLPar SRPar (map word names).
Proof. destruct names; reflexivity. Qed.
Lemma d_typectx_list names : d_typectx c names = opt_list_doc SLBrack SRBrack (map word names).
Proof. destruct names; reflexivity. Qed.
End DocEquations.

Section Types.
Variable c : pcfg.

Lemma ak_opt_list l r ds k :
  ak (opt_list_doc c l r ds) k = match ds with [] => k | _ => ASym l :: acommas (map ak ds) (ASym r :: k) end.
Proof.
  destruct ds as [|d ds']; [reflexivity|]. unfold opt_list_doc, enclose, dsym. cbn [ak].
  rewrite ak_sep_, ak_comma_sep, ak_sep_. reflexivity.
Qed.
Lemma ak_tyargs targs k :
  ak (d_tyargs c targs) k =
  match targs with
  | [] => k
  | _ => ASym SLBrack :: acommas (map (fun t => ak (d_ty c t)) targs) (ASym SRBrack :: k)
  end.
Proof. rewrite d_tyargs_list, ak_opt_list, map_map. destruct targs; reflexivity. Qed.
Lemma ak_ty_decl n targs k : ak (d_ty c (FDecl n targs)) k = AWord n :: ak (d_tyargs c targs) k.
Proof. rewrite d_ty_decl. reflexivity. Qed.
Lemma G_tyargs_of targs k :
  (forall x, In x targs -> forall k', glue (ak (d_ty c x) k') = Tk_ty x (glue k')) ->
  glue (ak (d_tyargs c targs) k) = Tk_tyargs targs (glue k).
Proof.
  intros H. rewrite ak_tyargs. apply (glue_opt_bracketed SLBrack SRBrack (fun t => ak (d_ty c t)) Tk_ty); try reflexivity.
  intros x Hx k' _. now apply H.
Qed.
Lemma G_ty t : wf_ty t = true -> forall k, glue (ak (d_ty c t) k) = Tk_ty t (glue k).
Proof.
  apply (wf_ty_ind (fun t => forall k, glue (ak (d_ty c t) k) = Tk_ty t (glue k))); clear t; [reflexivity|].
  intros n targs Hn Hargs k.
  rewrite ak_ty_decl, Tk_ty_decl. rewrite glue_word, word_token_upper by assumption. f_equal.
  apply G_tyargs_of. intros x Hx. now apply Hargs.
Qed.
Lemma ty_nocns t k : wf_ty t = true -> nocns (ak (d_ty c t) k) = true.
Proof.
  destruct t as [|n targs]; [reflexivity|]. cbn [wf_ty]. intros H. apply andb_prop in H. destruct H as [H _].
  rewrite ak_ty_decl. cbn [nocns]. now rewrite upper_not_cns.
Qed.
Lemma G_tyargs targs k : forallb wf_ty targs = true -> glue (ak (d_tyargs c targs) k) = Tk_tyargs targs (glue k).
Proof. intros Hwf. rewrite forallb_forall in Hwf. apply G_tyargs_of. intros x Hx. apply G_ty. now apply Hwf. Qed.

Lemma G_wordlist (l r : sym) (tok : string -> token) names k :
  plain_sym l = true -> plain_sym r = true ->
  (forall s, In s names -> word_token s = tok s) ->
  glue (match names with [] => k | _ => ASym l :: acommas (map (fun s => cons (AWord s)) names) (ASym r :: k) end)
  = opt_bracketed l r (map (fun s k => tok s :: k) names) (glue k).
Proof.
  intros Hl Hr Hn. apply (glue_opt_bracketed l r (fun s => cons (AWord s)) (fun s k => tok s :: k)); try assumption.
  intros x Hx k' _. rewrite glue_word. now rewrite Hn.
Qed.
Lemma ak_namectx names k :
  ak (d_namectx c names) k =
  match names with [] => k | _ => ASym SLPar :: acommas (map (fun s => cons (AWord s)) names) (ASym SRPar :: k) end.
Proof. rewrite d_namectx_list, ak_opt_list, map_map. destruct names; reflexivity. Qed.
Lemma ak_typectx names k :
  ak (d_typectx c names) k =
  match names with [] => k | _ => ASym SLBrack :: acommas (map (fun s => cons (AWord s)) names) (ASym SRBrack :: k) end.
Proof. rewrite d_typectx_list, ak_opt_list, map_map. destruct names; reflexivity. Qed.
Lemma G_names names k : forallb lower_ok names = true -> glue (ak (d_namectx c names) k) = Tk_names names (glue k).
Proof.
  intros H. rewrite forallb_forall in H. rewrite ak_namectx. unfold Tk_names, Tk_lower.
  apply (G_wordlist SLPar SRPar TLower); try reflexivity. intros s Hs. apply word_token_lower. now apply H.
Qed.
Lemma G_typarams names k : forallb upper_ok names = true -> glue (ak (d_typectx c names) k) = Tk_typarams names (glue k).
Proof.
  intros H. rewrite forallb_forall in H. rewrite ak_typectx. unfold Tk_typarams, Tk_upper.
  apply (G_wordlist SLBrack SRBrack TUpper); try reflexivity. intros s Hs. apply word_token_upper. now apply H.
Qed.
Lemma G_binding b k : wf_binding b = true -> glue (ak (d_binding c b) k) = Tk_binding b (glue k).
Proof.
  unfold wf_binding. intros H. apply andb_prop in H. destruct H as [Hv Hty]. destruct b as [v chi ty].
  unfold d_binding, Tk_binding, word, dsym. cbn [fbvar fbchi fbty] in *. cbn [ak].
  rewrite glue_word, word_token_lower by assumption. f_equal.
  destruct chi; unfold d_chi, word; cbn [ak].
  - rewrite glue_colon by (now apply ty_nocns). now rewrite G_ty.
  - rewrite glue_colon_cns. now rewrite G_ty.
Qed.
Lemma ak_ctx g k : ak (d_ctx c g) k = acommas (map (fun b => ak (d_binding c b)) g) k.
Proof. rewrite d_ctx_args, ak_args, map_map. reflexivity. Qed.
End Types.

Section Terms.
Variable c : pcfg.

Lemma ak_call f args r k : ak (d_term c (FCall f args r)) k =
  AWord f :: ASym SLPar :: acommas (map (fun t => ak (d_term c t)) args) (ASym SRPar :: k).
Proof.
  rewrite d_term_call.
  unfold word, parens, enclose, dsym. cbn [ak]. rewrite ak_args, map_map. reflexivity.
Qed.
Lemma ak_ctor x args r k : ak (d_term c (FCtor x args r)) k =
  AWord x :: match args with
             | [] => k
             | _ => ASym SLPar :: acommas (map (fun t => ak (d_term c t)) args) (ASym SRPar :: k)
             end.
Proof.
  rewrite d_term_ctor.
  unfold word. cbn [ak]. rewrite ak_optargs, map_map. destruct args; reflexivity.
Qed.
Lemma ak_dtor s x targs args r k : ak (d_term c (FDtor s x targs args r)) k =
  ak (d_term c s) (ASym SDot :: AWord x :: ak (d_tyargs c targs)
     match args with
     | [] => k
     | _ => ASym SLPar :: acommas (map (fun t => ak (d_term c t)) args) (ASym SRPar :: k)
     end).
Proof.
  rewrite d_term_dtor.
  cbv zeta. destruct (short_scrutinee c s); unfold word, dsym; cbn [ak]; rewrite ak_optargs, map_map;
    destruct args; reflexivity.
Qed.
Lemma ak_case s targs cls r k : ak (d_term c (FCase s targs cls r)) k =
  ak (d_term c s) (ASym SDot :: AWord "case" :: ak (d_tyargs c targs)
     (ASym SLBrace :: acommas (map (fun cl => ak (d_clause c cl)) cls) (ASym SRBrace :: k))).
Proof.
  rewrite d_term_case.
  destruct (is_dtor s); unfold word, dsym; cbn [ak]; rewrite ak_clauses, map_map; reflexivity.
Qed.
Lemma ak_new cls r k : ak (d_term c (FNew cls r)) k =
  AWord "new" :: ASym SLBrace :: acommas (map (fun cl => ak (d_clause c cl)) cls) (ASym SRBrace :: k).
Proof.
  rewrite d_term_new.
  unfold word. cbn [ak]. rewrite ak_clauses, map_map. reflexivity.
Qed.
Lemma ak_clause p x names g body k : ak (d_clause c (FClause p x names g body)) k =
  AWord x :: ak (d_namectx c names) (ASym SArrow :: ak (d_term c body) k).
Proof. reflexivity. Qed.

Lemma ak_head t : forall k, exists a tl, ak (d_term c t) k = a :: tl /\ (starts_zero t = false -> a <> ANum 0).
Proof.
  induction t; intros k.
  - eexists _, _; split; [reflexivity | discriminate].
  - cbn [d_term]. unfold d_lit. destruct (n <? 0)%Z eqn:E.
    + eexists _, _; split; [reflexivity | discriminate].
    + eexists _, _; split; [reflexivity|]. destruct n; cbn in *; try discriminate; congruence.
  - destruct (IHt1 (ak (DAppend (DAppend (DAppend DSpace (d_binop o)) DSpace) (DGroup (d_term c t2))) k)) as (a & tl & E & H).
    exists a, tl. split; [|exact H]. cbn [d_term ak] in *. exact E.
  - cbn [d_term]. destruct b as [b|]; [destruct (ends_zero t1), (starts_zero b) | destruct (ends_zero t1)];
      eexists _, _; (split; [reflexivity | discriminate]).
  - destruct nl; eexists _, _; (split; [reflexivity | discriminate]).
  - eexists _, _; split; [reflexivity | discriminate].
  - rewrite ak_call. eexists _, _; split; [reflexivity | discriminate].
  - rewrite ak_ctor. eexists _, _; split; [reflexivity | discriminate].
  - rewrite ak_dtor. destruct (IHt (ASym SDot :: AWord x :: ak (d_tyargs c targs)
        match args with [] => k | _ => ASym SLPar :: acommas (map (fun t => ak (d_term c t)) args) (ASym SRPar :: k) end))
      as (a & tl & E & H). exists a, tl. split; [exact E | exact H].
  - rewrite ak_case. destruct (IHt (ASym SDot :: AWord "case" :: ak (d_tyargs c targs)
        (ASym SLBrace :: acommas (map (fun cl => ak (d_clause c cl)) cls) (ASym SRBrace :: k))))
      as (a & tl & E & H). exists a, tl. split; [exact E | exact H].
  - rewrite ak_new. eexists _, _; split; [reflexivity | discriminate].
  - eexists _, _; split; [reflexivity | discriminate].
  - eexists _, _; split; [reflexivity | discriminate].
  - eexists _, _; split; [reflexivity | discriminate].
  - eexists _, _; split; [reflexivity | discriminate].
Qed.
Lemma nozero_term t k : starts_zero t = false -> nozero (ak (d_term c t) k) = true.
Proof.
  intros H. destruct (ak_head t k) as (a & tl & -> & Ha). specialize (Ha H).
  destruct a as [|[]| |]; try reflexivity. congruence.
Qed.

(* The statement for a term.  A literal 0 at the end of the printed term would be glued to a comparison operator behind
   it (the terminal r"0\s*cmp"), so the continuation of such a term must not start with one. *)
Definition G (t : fterm) : Prop := forall k,
  ends_zero t = false \/ nocmp k = true -> glue (ak (d_term c t) k) = Tk_term t (glue k).
Definition Gcl (cl : fclause) : Prop := forall k,
  nocmp k = true -> glue (ak (d_clause c cl) k) = Tk_clause cl (glue k).

Lemma G_var v ty chi : lower_ok v = true -> G (FVar v ty chi).
Proof. intros Hv k _. cbn [d_term Tk_term]. unfold word. cbn [ak]. now rewrite glue_word, word_token_lower. Qed.
Lemma G_lit z : G (FLit z).
Proof.
  intros k H. cbn [d_term Tk_term]. unfold d_lit, Tk_lit, dsym. destruct (z <? 0)%Z eqn:E.
  - apply Z.ltb_lt in E. cbn [ak]. rewrite glue_sym by reflexivity. rewrite glue_num_pos by lia. reflexivity.
  - apply Z.ltb_ge in E. cbn [ak]. destruct z as [|p|p]; [|now rewrite glue_num_pos by discriminate|lia].
    cbn [Z.to_N]. destruct H as [H|H]; [discriminate|]. now rewrite glue_num0.
Qed.
Lemma d_binop_sym o : d_binop o = DText (ASym (sym_of_binop o)).
Proof. destruct o; reflexivity. Qed.
Lemma G_op a o b : G a -> G b -> G (FOp a o b).
Proof.
  intros Ha Hb k H. cbn [d_term Tk_term ak]. rewrite d_binop_sym. cbn [ak].
  rewrite Ha by (right; destruct o; reflexivity). rewrite glue_sym by (destruct o; reflexivity). rewrite Hb; [reflexivity|exact H].
Qed.
Lemma G_block t k : G t ->
  glue (ak (block c (d_term c t)) k) = TSym SLBrace :: Tk_term t (TSym SRBrace :: glue k).
Proof.
  intros Ht. unfold block, braces, enclose, dsym. cbn [ak]. rewrite glue_sym by reflexivity.
  rewrite Ht by (right; reflexivity). now rewrite glue_sym by reflexivity.
Qed.
Lemma G_pblock t k : G t ->
  glue (ak (pblock c (d_term c t)) k) = TSym SLPar :: Tk_term t (TSym SRPar :: glue k).
Proof.
  intros Ht. unfold pblock, parens, enclose, dsym. cbn [ak]. rewrite glue_sym by reflexivity.
  rewrite Ht by (right; reflexivity). now rewrite glue_sym by reflexivity.
Qed.
Lemma nocmp_block d k : nocmp (ak (block c d) k) = true.
Proof. reflexivity. Qed.
Lemma ak_if s a b th el ty k :
  ak (d_term c (FIfC s a b th el ty)) k =
  AWord "if" ::
    let br := ak (block c (d_term c th)) (AWord "else" :: ak (block c (d_term c el)) k) in
    match b with
    | None => if ends_zero a then ANum 0 :: ASym (SCmp (flip s)) :: ak (d_term c a) br
              else ak (d_term c a) (ASym (SCmp s) :: ANum 0 :: br)
    | Some b' => ak (d_term c a) ((if ends_zero a then [AComment] else []) ++
                   ASym (SCmp s) :: (if starts_zero b' then [ASym SMinus] else []) ++ ak (d_term c b') br)
    end.
Proof.
  cbn [d_term]. unfold word, dsym. destruct b as [b|].
  - destruct (ends_zero a), (starts_zero b); reflexivity.
  - destruct (ends_zero a); reflexivity.
Qed.
Lemma G_if s a b th el ty :
  G a -> match b with Some b' => G b' | None => True end ->
  G th -> G el -> G (FIfC s a b th el ty).
Proof.
  intros Ha Hb Hth Hel k _. rewrite ak_if. cbv zeta. cbn [Tk_term].
  rewrite (glue_kw KIf). f_equal.
  assert (Hbr : glue (ak (block c (d_term c th)) (AWord "else" :: ak (block c (d_term c el)) k))
                = TSym SLBrace :: Tk_term th (TSym SRBrace :: TKw KElse :: TSym SLBrace :: Tk_term el (TSym SRBrace :: glue k))).
  { rewrite G_block by auto. do 2 f_equal.
    rewrite (glue_kw KElse). f_equal.
    now rewrite G_block by auto. }
  destruct b as [b|].
  - (* general form: a comment after a final 0 of the first operand, a minus sign before a leading 0 of the second *)
    rewrite Ha by (destruct (ends_zero a); [right; reflexivity | left; reflexivity]). f_equal.
    assert (glue ((if ends_zero a then [AComment] else []) ++
                  ASym (SCmp s) :: (if starts_zero b then [ASym SMinus] else []) ++
                  ak (d_term c b) (ak (block c (d_term c th)) (AWord "else" :: ak (block c (d_term c el)) k)))
            = glue (ASym (SCmp s) :: (if starts_zero b then [ASym SMinus] else []) ++
                    ak (d_term c b) (ak (block c (d_term c th)) (AWord "else" :: ak (block c (d_term c el)) k)))) as ->
      by (destruct (ends_zero a); reflexivity).
    destruct (starts_zero b) eqn:Zb; cbn [app].
    + rewrite glue_cmp by reflexivity. f_equal. rewrite glue_sym by reflexivity. f_equal.
      rewrite Hb by (right; apply nocmp_block). now rewrite Hbr.
    + rewrite glue_cmp by (now apply nozero_term). f_equal.
      rewrite Hb by (right; apply nocmp_block). now rewrite Hbr.
  - destruct (ends_zero a) eqn:Za.
    + (* zero on the left *)
      rewrite glue_zcmp. f_equal. rewrite Ha by (right; apply nocmp_block). now rewrite Hbr.
    + rewrite Ha by (left; exact Za). f_equal. rewrite glue_cmpz. now rewrite Hbr.
Qed.
Lemma G_print nl a next ty : G a -> G next -> G (FPrint nl a next ty).
Proof.
  intros Ha Hn k H. cbn [d_term Tk_term]. unfold word, dsym. cbn [ak].
  rewrite glue_word. assert (word_token (if nl then "println_i64" else "print_i64") = TKw (if nl then KPrintln else KPrint)) as ->
    by (destruct nl; reflexivity).
  f_equal. rewrite G_pblock by assumption. do 3 f_equal. rewrite glue_sym by reflexivity. f_equal.
  apply Hn. exact H.
Qed.
Lemma G_let v vty bound body ty : lower_ok v = true -> wf_ty vty = true -> G bound -> G body ->
  G (FLet v vty bound body ty).
Proof.
  intros Hv Hty Hb Ht k H. cbn [d_term Tk_term]. unfold word, dsym. cbn [ak].
  rewrite (glue_kw KLet). f_equal.
  rewrite glue_word, word_token_lower by assumption. f_equal.
  rewrite glue_colon by (now apply ty_nocns). f_equal.
  rewrite G_ty by assumption. f_equal. rewrite glue_sym by reflexivity. f_equal.
  rewrite Hb by (right; reflexivity). f_equal. rewrite glue_sym by reflexivity. f_equal.
  apply Ht. exact H.
Qed.
Lemma G_call f args r : lower_ok f = true -> (forall a, In a args -> G a) -> G (FCall f args r).
Proof.
  intros Hf HG k _. rewrite ak_call, Tk_call. unfold bracketed.
  rewrite glue_word, word_token_lower by assumption. f_equal.
  apply (glue_bracketed SLPar SRPar (fun t => ak (d_term c t)) Tk_term); try reflexivity.
  intros x Hx k' Hk'. apply (HG x Hx). now right.
Qed.
Lemma G_optargs args k : (forall a, In a args -> G a) ->
  glue match args with
       | [] => k
       | _ => ASym SLPar :: acommas (map (fun t => ak (d_term c t)) args) (ASym SRPar :: k)
       end = opt_bracketed SLPar SRPar (map Tk_term args) (glue k).
Proof.
  intros HG. apply (glue_opt_bracketed SLPar SRPar (fun t => ak (d_term c t)) Tk_term); try reflexivity.
  intros x Hx k' Hk'. apply (HG x Hx). now right.
Qed.
Lemma G_ctor x args r : upper_ok x = true -> (forall a, In a args -> G a) -> G (FCtor x args r).
Proof.
  intros Hx HG k _. rewrite ak_ctor, Tk_ctor.
  rewrite glue_word, word_token_upper by assumption. f_equal. now apply G_optargs.
Qed.
Lemma G_dtor s x targs args r :
  G s -> lower_ok x = true -> forallb wf_ty targs = true -> (forall a, In a args -> G a) ->
  G (FDtor s x targs args r).
Proof.
  intros Hs Hx Hty HG k _. rewrite ak_dtor, Tk_dtor.
  rewrite Hs by (right; reflexivity). f_equal. rewrite glue_sym by reflexivity. f_equal.
  rewrite glue_word, word_token_lower by assumption. f_equal.
  rewrite G_tyargs by assumption. f_equal. now apply G_optargs.
Qed.
Lemma G_clauses cls k : (forall cl, In cl cls -> Gcl cl) ->
  glue (ASym SLBrace :: acommas (map (fun cl => ak (d_clause c cl)) cls) (ASym SRBrace :: k))
  = bracketed SLBrace SRBrace (map Tk_clause cls) (glue k).
Proof.
  intros HG. apply (glue_bracketed SLBrace SRBrace (fun cl => ak (d_clause c cl)) Tk_clause); try reflexivity. intros cl Hcl k' Hk'. now apply (HG cl Hcl).
Qed.
Lemma G_case s targs cls r : G s -> forallb wf_ty targs = true -> (forall cl, In cl cls -> Gcl cl) ->
  G (FCase s targs cls r).
Proof.
  intros Hs Hty HG k _. rewrite ak_case, Tk_case.
  rewrite Hs by (right; reflexivity). f_equal. rewrite glue_sym by reflexivity. f_equal.
  rewrite (glue_kw KCase). f_equal.
  rewrite G_tyargs by assumption. f_equal.
  now apply G_clauses.
Qed.
Lemma G_new cls r : (forall cl, In cl cls -> Gcl cl) -> G (FNew cls r).
Proof.
  intros HG k _. rewrite ak_new, Tk_new.
  rewrite (glue_kw KNew). f_equal.
  now apply G_clauses.
Qed.
Lemma G_clause pol p x names g body :
  wf_clause pol (FClause p x names g body) = true -> G body -> Gcl (FClause p x names g body).
Proof.
  intros Hwf Hb k Hk. cbn [wf_clause] in Hwf. rewrite !andb_true_iff in Hwf.
  destruct Hwf as ((((Hp & Hx) & Hns) & _) & _).
  assert (p = pol) as -> by (destruct p, pol; try discriminate; reflexivity).
  rewrite ak_clause. cbn [Tk_clause]. rewrite glue_word.
  assert (word_token x = match pol with FData => TUpper x | FCodata => TLower x end) as ->
    by (destruct pol; [now apply word_token_upper | now apply word_token_lower]).
  f_equal. rewrite G_names by assumption. f_equal. rewrite glue_sym by reflexivity. f_equal.
  apply Hb. now right.
Qed.
Lemma G_label l t ty : lower_ok l = true -> G t -> G (FLabel l t ty).
Proof.
  intros Hl Ht k _. cbn [d_term Tk_term]. unfold word. cbn [ak].
  rewrite (glue_kw KLabel). f_equal.
  rewrite glue_word, word_token_lower by assumption. f_equal.
  now apply G_block.
Qed.
Lemma G_goto l t ty : lower_ok l = true -> G t -> G (FGoto l t ty).
Proof.
  intros Hl Ht k _. cbn [d_term Tk_term]. unfold word. cbn [ak].
  rewrite (glue_kw KGoto). f_equal.
  rewrite glue_word, word_token_lower by assumption. f_equal. now apply G_pblock.
Qed.
Lemma G_exit a ty : G a -> G (FExit a ty).
Proof.
  intros Ha k H. cbn [d_term Tk_term]. unfold word. cbn [ak].
  rewrite (glue_kw KExit). f_equal. apply Ha. exact H.
Qed.
Lemma G_paren t : G t -> G (FParen t).
Proof. intros Ht k _. cbn [d_term Tk_term]. now apply G_pblock. Qed.
End Terms.

Lemma G_clauses_all c pol cls :
  (forall p x ns g body, In (FClause p x ns g body) cls -> wf_clause pol (FClause p x ns g body) = true /\ G c body) ->
  forall cl, In cl cls -> Gcl c cl.
Proof. intros H [p x ns g body] Hin. destruct (H _ _ _ _ _ Hin). now apply (G_clause c pol). Qed.
Lemma G_all c t : wf t = true -> G c t.
Proof.
  apply wf_ind; clear t; intros.
  - now apply G_var.
  - apply G_lit.
  - now apply G_op.
  - now apply G_if.
  - now apply G_print.
  - now apply G_let.
  - now apply G_call.
  - now apply G_ctor.
  - now apply G_dtor.
  - apply G_case; auto. now apply (G_clauses_all c FData).
  - apply G_new. now apply (G_clauses_all c FCodata).
  - now apply G_label.
  - now apply G_goto.
  - now apply G_exit.
  - now apply G_paren.
Qed.

Lemma ak_sigargs c g k :
  ak (d_sigargs c g) k =
  match g with [] => k | _ => ASym SLPar :: acommas (map (fun b => ak (d_binding c b)) g) (ASym SRPar :: k) end.
Proof.
  unfold d_sigargs. destruct g as [|b g']; [reflexivity|].
  unfold parens, enclose, dsym. cbn [ak]. rewrite ak_ctx. reflexivity.
Qed.
Lemma G_sigargs c g k : wf_ctx g = true -> glue (ak (d_sigargs c g) k) = Tk_sigargs g (glue k).
Proof.
  intros Hwf. unfold wf_ctx in Hwf. rewrite forallb_forall in Hwf. rewrite ak_sigargs.
  apply (glue_opt_bracketed SLPar SRPar (fun b => ak (d_binding c b)) Tk_binding); try reflexivity.
  intros b Hb k' _. apply G_binding. now apply Hwf.
Qed.
Lemma ak_decl_body c (sigs : list doc) k :
  ak (d_decl_body c sigs) k = ASym SLBrace :: acommas (map ak sigs) (ASym SRBrace :: k).
Proof.
  unfold d_decl_body, braces, enclose, dsym. destruct sigs as [|s l]; [reflexivity|].
  cbn [ak]. rewrite ak_intersperse by reflexivity. reflexivity.
Qed.
Lemma G_decl c d k : wf_decl d = true -> glue (ak (d_decl c d) k) = Tk_decl d (glue k).
Proof.
  intros Hwf. destruct d as [d|d|d]; cbn [wf_decl d_decl] in *.
  - destruct d as [x ps cs]. cbn [fdaname fdaparams fdactors] in *.
    rewrite !andb_true_iff in Hwf. destruct Hwf as ((Hx & Hps) & Hcs). rewrite forallb_forall in Hcs.
    unfold d_data, Tk_decl, word. cbn [fdaname fdaparams fdactors ak].
    rewrite (glue_kw KData). f_equal.
    rewrite glue_word, word_token_upper by assumption. f_equal.
    rewrite G_typarams by assumption. f_equal.
    rewrite ak_decl_body, map_map. apply (glue_bracketed SLBrace SRBrace (fun s => ak (d_ctorsig c s)) Tk_ctorsig); try reflexivity.
    intros s Hs k' _. specialize (Hcs s Hs). apply andb_prop in Hcs. destruct Hcs as [Hn Hg].
    unfold d_ctorsig, Tk_ctorsig, word. cbn [ak]. rewrite glue_word, word_token_upper by assumption. f_equal.
    now apply G_sigargs.
  - destruct d as [x ps ds]. cbn [fcoaname fcoparams fcodtors] in *.
    rewrite !andb_true_iff in Hwf. destruct Hwf as ((Hx & Hps) & Hds). rewrite forallb_forall in Hds.
    unfold d_codata, Tk_decl, word. cbn [fcoaname fcoparams fcodtors ak].
    rewrite (glue_kw KCodata). f_equal.
    rewrite glue_word, word_token_upper by assumption. f_equal.
    rewrite G_typarams by assumption. f_equal.
    rewrite ak_decl_body, map_map. apply (glue_bracketed SLBrace SRBrace (fun s => ak (d_dtorsig c s)) Tk_dtorsig); try reflexivity.
    intros s Hs k' _. specialize (Hds s Hs). rewrite !andb_true_iff in Hds. destruct Hds as ((Hn & Hg) & Hty).
    unfold d_dtorsig, Tk_dtorsig, word, dsym. cbn [ak]. rewrite glue_word, word_token_lower by assumption. f_equal.
    rewrite G_sigargs by assumption. f_equal.
    rewrite glue_colon by (now apply ty_nocns). f_equal. now apply G_ty.
  - destruct d as [f g ret body]. cbn [fdname fdctx fdret fdbody] in *.
    rewrite !andb_true_iff in Hwf. destruct Hwf as (((Hf & Hg) & Hret) & Hbody).
    unfold d_def, Tk_decl, word, dsym, parens, braces, enclose, dsym. cbn [fdname fdctx fdret fdbody ak].
    rewrite (glue_kw KDef). f_equal.
    rewrite glue_word, word_token_lower by assumption. f_equal.
    unfold wf_ctx in Hg. rewrite forallb_forall in Hg. unfold Tk_ctx. rewrite ak_ctx.
    rewrite (glue_bracketed SLPar SRPar (fun b => ak (d_binding c b)) Tk_binding)
      by (try reflexivity; intros b Hb k' _; apply G_binding; now apply Hg).
    f_equal.
    rewrite glue_colon by (now apply ty_nocns). f_equal.
    rewrite G_ty by assumption. f_equal. rewrite glue_sym by reflexivity. f_equal.
    rewrite (G_all c body) by (auto; right; reflexivity). reflexivity.
Qed.

Lemma ak_intersperse_blank sep (l : list doc) k :
  (forall X, ak sep X = X) -> ak (intersperse l sep) k = fold_right ak k l.
Proof.
  intros Hsep. unfold intersperse. destruct l as [|d l]; [reflexivity|].
  rewrite ak_intersperse_from. cbn [ak fold_right]. f_equal.
  induction l as [|e l IH]; [reflexivity|]. cbn [fold_right]. rewrite Hsep. now rewrite IH.
Qed.

Theorem tokens_print c p : wf_prog p = true -> tokens (d_prog c p) = T_prog p.
Proof.
  intros Hwf. unfold tokens. rewrite atoms_ak. destruct p as [ds]. unfold d_prog, T_prog, wf_prog in *.
  cbn [fpdecls] in *.
  rewrite ak_intersperse_blank by (intros; destruct (pomit_sep c); reflexivity).
  rewrite forallb_forall in Hwf.
  change (@nil token) with (glue []). generalize (@nil atom) as k.
  induction ds as [|d ds IH]; intros k; [reflexivity|].
  cbn [map fold_right Tk_decls]. rewrite G_decl by (apply Hwf; now left).
  f_equal. apply IH; intros x Hx; apply Hwf; now right.
Qed.
