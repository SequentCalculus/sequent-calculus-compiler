(* Proof/ShrinkProof.v - lemmas about the model of shrinking (Model/Shrink.v) for property C04; the
   theorems are re-stated in Props/C04.v.  Totality goes forward through [shrink_step] on the shape that
   typing leaves.  The invariants of a successful run (ids bounded by max_id, binders counted, labels
   fresh) each go through [step_case], the one case analysis of a successful step, with the recursive
   call as a parameter [rec] that satisfies the invariant. *)
From Coq Require Import List ZArith NArith String Bool Lia DecimalString DecimalN DecimalPos FinFun.
From SCC Require Import Proof.CoreInd.
From SCC Require Import Base.Sexp Lang.SynUtil Lang.CoreSyn Lang.AxSyn Sem.FsCheck Model.Shrink.
Import ListNotations.
Open Scope list_scope.

Section FsInd.
Variables (P : fsterm -> Prop) (Q : fsclause -> Prop) (R : fsstmt -> Prop).
Hypothesis HXVar : forall c v t, P (FsXVar c v t).
Hypothesis HLit : forall n, P (FsLit n).
Hypothesis HOp : forall a o b, P (FsOp a o b).
Hypothesis HMu : forall c v s t, R s -> P (FsMu c v s t).
Hypothesis HXtor : forall c x args t, P (FsXtor c x args t).
Hypothesis HXCase : forall c cls t, Forall Q cls -> P (FsXCase c cls t).
Hypothesis HClause : forall c x ctx b, R b -> Q (FsClause c x ctx b).
Hypothesis HCut : forall p t k, P p -> P k -> R (FsCut p t k).
Hypothesis HIfC : forall so a b t e, R t -> R e -> R (FsIfC so a b t e).
Hypothesis HPrint : forall nl a n, R n -> R (FsPrint nl a n).
Hypothesis HCall : forall f args, R (FsCall f args).
Hypothesis HExit : forall v, R (FsExit v).

Fixpoint fsterm_ind' (t : fsterm) : P t :=
  match t with
  | FsXVar c v ty => HXVar c v ty
  | FsLit n => HLit n
  | FsOp a o b => HOp a o b
  | FsMu c v s ty => HMu c v s ty (fsstmt_ind' s)
  | FsXtor c x args ty => HXtor c x args ty
  | FsXCase c cls ty =>
      HXCase c cls ty
        ((fix go (l : list fsclause) : Forall Q l :=
            match l with
            | [] => Forall_nil Q
            | y :: r => Forall_cons y (fsclause_ind' y) (go r)
            end) cls)
  end
with fsclause_ind' (c : fsclause) : Q c :=
  match c with FsClause ch x ctx b => HClause ch x ctx b (fsstmt_ind' b) end
with fsstmt_ind' (s : fsstmt) : R s :=
  match s with
  | FsCut p ty k => HCut p ty k (fsterm_ind' p) (fsterm_ind' k)
  | FsIfC so a b t e => HIfC so a b t e (fsstmt_ind' t) (fsstmt_ind' e)
  | FsPrint nl a n => HPrint nl a n (fsstmt_ind' n)
  | FsCall f args => HCall f args
  | FsExit v => HExit v
  end.
Lemma fs_mutind : (forall t, P t) /\ (forall c, Q c) /\ (forall s, R s).
Proof. repeat split; [apply fsterm_ind' | apply fsclause_ind' | apply fsstmt_ind']. Qed.
End FsInd.

Definition fsz_clauses (cls : list fsclause) : nat :=
  (fix go (l : list fsclause) : nat := match l with [] => 0 | y :: r => fsz_clause y + go r end) cls.
Lemma fsz_term_xcase : forall c cls t, fsz_term (FsXCase c cls t) = S (fsz_clauses cls).
Proof. reflexivity. Qed.
Lemma fsz_clauses_cons : forall y r, fsz_clauses (y :: r) = fsz_clause y + fsz_clauses r.
Proof. reflexivity. Qed.

Lemma fsz_subst_all : forall sub,
  (forall t, fsz_term (subst_term sub t) = fsz_term t) /\
  (forall c, fsz_clause (subst_clause sub c) = fsz_clause c) /\
  (forall s, fsz (subst_stmt sub s) = fsz s).
Proof.
  intro sub. apply fs_mutind; intros; simpl; try reflexivity; try congruence.
  - (* XCase *) f_equal. induction H as [|y r Hy Hr IH]; simpl; [reflexivity|]. rewrite Hy. f_equal. exact IH.
Qed.
Lemma fsz_subst : forall sub s, fsz (subst_stmt sub s) = fsz s.
Proof. intros. apply (fsz_subst_all sub). Qed.

Lemma fsz_pos : forall s, 1 <= fsz s.
Proof. destruct s; simpl; lia. Qed.
Lemma fsz_clause_in : forall cl cls, In cl cls -> fsz_clause cl <= fsz_clauses cls.
Proof.
  induction cls as [|y r IH]; intros Hin; [contradiction|].
  rewrite fsz_clauses_cons. destruct Hin as [->|Hin]; [lia|]. specialize (IH Hin). lia.
Qed.

Ltac inv H := inversion H; subst; clear H.

Lemma n_to_string_inj : forall a b, n_to_string a = n_to_string b -> a = b.
Proof.
  assert (H : forall n, n_of_string (n_to_string n) = Some n).
  { intros n. unfold n_of_string, n_to_string. rewrite DecimalString.NilZero.usu.
    - now rewrite DecimalN.Unsigned.of_to.
    - destruct n; simpl; [discriminate | apply DecimalPos.Unsigned.to_uint_nonnil]. }
  intros a b Hab. pose proof (H a) as Ha. rewrite Hab, H in Ha. now inv Ha.
Qed.
Lemma append_inj_l : forall a b c, (a ++ b)%string = (a ++ c)%string -> b = c.
Proof. induction a; simpl; intros b c H; [exact H|]. inversion H. auto. Qed.
Lemma show_cident_inj : forall base i j, i <> 0%N -> j <> 0%N -> show_cident (base, i) = show_cident (base, j) -> i = j.
Proof.
  intros base i j Hi Hj H. unfold show_cident in H. simpl in H.
  apply N.eqb_neq in Hi, Hj. rewrite Hi, Hj in H.
  apply append_inj_l in H. simpl in H. inversion H. now apply n_to_string_inj.
Qed.

Lemma fresh_label_spec : forall fuel used base st c st1,
  fresh_label fuel used base st = Some (c, st1) ->
  fst c = base /\ snd c = s_max st1 /\ (s_max st < s_max st1)%N /\
  s_lifted st1 = s_lifted st /\ s_used st1 = s_used st /\
  existsb (fun u => String.eqb (show_cident u) (show_cident c)) used = false.
Proof.
  induction fuel as [|fuel IH]; intros used base st c st1 H; simpl in H; [discriminate|].
  destruct (existsb _ used) eqn:He.
  - apply IH in H as [H1 [H2 [H3 [H4 [H5 H6]]]]]. simpl in *. repeat split; auto. lia.
  - inv H. simpl. repeat split; auto. lia.
Qed.
(* the candidates of a failing run are all (printed) among the used labels *)
Lemma fresh_label_none : forall fuel used base st,
  fresh_label fuel used base st = None ->
  forall k, k < fuel -> In (show_cident (base, s_max st + 1 + N.of_nat k)%N) (map show_cident used).
Proof.
  induction fuel as [|fuel IH]; intros used base st H k Hk; [lia|]. simpl in H.
  destruct (existsb _ used) eqn:He; [|discriminate].
  destruct k as [|k].
  - apply existsb_exists in He as [u [Hu Heq]]. apply String.eqb_eq in Heq.
    replace (s_max st + 1 + N.of_nat 0)%N with (N.succ (s_max st)) by lia. rewrite <- Heq. now apply in_map.
  - specialize (IH _ _ _ H k). simpl in IH.
    replace (s_max st + 1 + N.of_nat (S k))%N with (N.succ (s_max st) + 1 + N.of_nat k)%N by lia. apply IH. lia.
Qed.
Lemma fresh_label_total : forall used base st, exists r, fresh_label (S (List.length used)) used base st = Some r.
Proof.
  intros used base st. destruct (fresh_label _ used base st) as [r|] eqn:H; [eexists; reflexivity|]. exfalso.
  pose proof (fresh_label_none _ _ _ _ H) as Hin.
  set (cands := map (fun k => show_cident (base, s_max st + 1 + N.of_nat k)%N) (seq 0 (S (List.length used)))).
  assert (Hnd : NoDup cands).
  { unfold cands. apply FinFun.Injective_map_NoDup; [|apply seq_NoDup].
    intros a b Hab. apply show_cident_inj in Hab; lia. }
  assert (Hincl : incl cands (map show_cident used)).
  { intros x Hx. unfold cands in Hx. apply in_map_iff in Hx as [k [<- Hk]]. apply in_seq in Hk. apply Hin. lia. }
  apply NoDup_incl_length in Hincl; auto. unfold cands in Hincl. rewrite !map_length, seq_length in Hincl. lia.
Qed.

(* [shape_*]: the context-free part of typing that decides which arm of FsCut::shrink is taken;
   invariant under variable-for-variable substitution *)
Definition is_some {X} (o : option X) : bool := match o with Some _ => true | None => false end.
Definition decl_found (D C : list ctydecl) (ty : cty) : bool :=
  match ty with
  | CI64 => true
  | CDecl n => is_some (lookup_type_declaration n (if is_codata C ty then C else D))
  end.
Definition cut_shape (D C : list ctydecl) (p : fsterm) (ty : cty) (k : fsterm) : bool :=
  match p, k with
  | FsMu _ _ _ _, FsXVar _ _ _ | FsXVar _ _ _, FsMu _ _ _ _ => true
  | FsXtor _ x _ _, FsXCase _ cls _ | FsXCase _ cls _, FsXtor _ x _ _ =>
      existsb (fun c => cident_eqb (clause_xtor c) x) cls
  | FsXVar _ _ _, FsXVar _ _ _ | FsMu _ _ _ _, FsMu _ _ _ _ => decl_found D C ty
  | FsLit _, FsMu _ _ _ _ | FsLit _, FsXVar _ _ _ | FsOp _ _ _, FsMu _ _ _ _ | FsOp _ _ _, FsXVar _ _ _ => true
  | FsXtor _ _ _ _, FsMu _ _ _ _ | FsMu _ _ _ _, FsXtor _ _ _ _ => true
  | FsXtor _ _ _ _, FsXVar _ _ _ | FsXVar _ _ _, FsXtor _ _ _ _ => true
  | FsXVar _ _ _, FsXCase _ _ _ | FsXCase _ _ _, FsXVar _ _ _ => true
  | FsMu _ _ _ _, FsXCase _ _ _ | FsXCase _ _ _, FsMu _ _ _ _ => true
  | _, _ => false
  end.
Section Shape.
Variables D C : list ctydecl.
Fixpoint shape_term (t : fsterm) : bool :=
  match t with
  | FsMu _ _ s _ => shape_stmt s
  | FsXCase _ cls _ =>
      (fix go (l : list fsclause) : bool := match l with [] => true | y :: r => shape_clause y && go r end) cls
  | _ => true
  end
with shape_clause (c : fsclause) : bool :=
  match c with FsClause _ _ _ b => shape_stmt b end
with shape_stmt (s : fsstmt) : bool :=
  match s with
  | FsCut p ty k => cut_shape D C p ty k && shape_term p && shape_term k
  | FsIfC _ _ _ t e => shape_stmt t && shape_stmt e
  | FsPrint _ _ n => shape_stmt n
  | FsCall _ _ | FsExit _ => true
  end.
Definition shape_clauses (cls : list fsclause) : bool := forallb shape_clause cls.
Lemma shape_term_xcase : forall c cls t, shape_term (FsXCase c cls t) = shape_clauses cls.
Proof. intros. simpl. induction cls; simpl; [reflexivity|]. now rewrite IHcls. Qed.

Lemma subst_clauses_names : forall sub cls x,
  existsb (fun c => cident_eqb (clause_xtor c) x) (subst_clauses sub cls)
  = existsb (fun c => cident_eqb (clause_xtor c) x) cls.
Proof. induction cls as [|[c y ctx b] r IH]; intros; simpl; [reflexivity|]. now rewrite IH. Qed.
Lemma subst_term_xcase : forall sub c cls t,
  subst_term sub (FsXCase c cls t) = FsXCase c (subst_clauses sub cls) t.
Proof. intros. reflexivity. Qed.

Lemma cut_shape_subst : forall sub p ty k,
  cut_shape D C (subst_term sub p) ty (subst_term sub k) = cut_shape D C p ty k.
Proof.
  intros sub p ty k.
  destruct p, k; try reflexivity;
    rewrite ?subst_term_xcase; simpl; try reflexivity; try apply subst_clauses_names.
Qed.

Lemma shape_subst_all : forall sub,
  (forall t, shape_term (subst_term sub t) = shape_term t) /\
  (forall c, shape_clause (subst_clause sub c) = shape_clause c) /\
  (forall s, shape_stmt (subst_stmt sub s) = shape_stmt s).
Proof.
  intro sub. apply fs_mutind; intros; try reflexivity.
  - simpl. exact H.
  - rewrite subst_term_xcase, !shape_term_xcase. unfold shape_clauses, subst_clauses.
    induction H as [|y r Hy Hr IH]; simpl; [reflexivity|]. now rewrite Hy, IH.
  - simpl. exact H.
  - change (shape_stmt (subst_stmt sub (FsCut p t k)))
      with (cut_shape D C (subst_term sub p) t (subst_term sub k) && shape_term (subst_term sub p) && shape_term (subst_term sub k)).
    now rewrite cut_shape_subst, H, H0.
  - simpl. now rewrite H, H0.
  - simpl. exact H.
Qed.
Lemma shape_subst : forall sub s, shape_stmt (subst_stmt sub s) = shape_stmt s.
Proof. intros. apply (shape_subst_all sub). Qed.
End Shape.

Section TotalStep.
Variable rec : fsstmt -> sst -> shres (stmt * sst).
Variable E : senv.
Variable n : nat.
Notation shapeS := (shape_stmt (e_data E) (e_codata E)).
Hypothesis Hrec : forall s st, fsz s <= n -> shapeS s = true -> exists r, rec s st = SOk r.

Lemma shrink_clauses_total : forall cls st,
  fsz_clauses cls <= n -> shape_clauses (e_data E) (e_codata E) cls = true ->
  exists r, shrink_clauses rec E cls st = SOk r.
Proof.
  induction cls as [|[c x ctx b] r IH]; intros st Hsz Hsh; simpl.
  - eexists; reflexivity.
  - rewrite fsz_clauses_cons in Hsz. simpl in Hsz, Hsh. apply andb_prop in Hsh as [Hb Hr].
    destruct (Hrec b st) as [[b' st1] Hb']; [lia | exact Hb |]. rewrite Hb'. simpl.
    destruct (IH st1) as [[r' st2] Hr']; [lia | exact Hr |]. rewrite Hr'. simpl. eexists; reflexivity.
Qed.

Lemma lift_total : forall s st, fsz s <= n -> shapeS s = true -> exists r, lift rec E s st = SOk r.
Proof.
  intros s st Hsz Hsh. unfold lift.
  destruct (lift_params (typed_free_vars s) st) as [[cx sub] st1].
  destruct (fresh_label_total (s_used st1) ("lift_" ++ e_label E ++ "_")%string st1) as [[label st2] Hl]. rewrite Hl.
  destruct (Hrec (subst_stmt sub s) (mksst (s_max st2) (s_lifted st2) (label :: s_used st2))) as [[b st3] Hb].
  - now rewrite fsz_subst.
  - now rewrite shape_subst.
  - rewrite Hb. simpl. eexists; reflexivity.
Qed.

Lemma xtors_of_found : forall ty name, ty = CDecl name ->
  decl_found (e_data E) (e_codata E) ty = true -> exists xs, xtors_of E ty name = SOk xs.
Proof.
  intros ty name -> H. unfold decl_found in H. unfold xtors_of.
  destruct (lookup_type_declaration name _); [eexists; reflexivity | discriminate].
Qed.

Lemma critical_total : forall vp sp vc sc ty st,
  fsz sp <= n -> fsz sc <= n -> shapeS sp = true -> shapeS sc = true ->
  decl_found (e_data E) (e_codata E) ty = true ->
  exists r, shrink_critical_pairs rec E vp sp vc sc ty st = SOk r.
Proof.
  intros vp sp vc sc ty st Hp Hc Sp Sc Hd. unfold shrink_critical_pairs. destruct ty as [|name].
  - destruct (Hrec sc st) as [[b st1] Hb]; auto. rewrite Hb. simpl.
    destruct (Hrec sp st1) as [[b2 st2] Hb2]; auto. rewrite Hb2. simpl. eexists; reflexivity.
  - destruct (xtors_of_found (CDecl name) name eq_refl Hd) as [xs Hxs].
    remember (is_codata (e_codata E) (CDecl name)) as cd. rewrite Hxs. cbn [sbind].
    destruct cd; cbv beta iota.
    + assert (Hexp : exists r, (if Nat.leb (List.length xs) 1 || is_leaf_statement sp then rec sp st else lift rec E sp st) = SOk r).
      { destruct (Nat.leb (List.length xs) 1 || is_leaf_statement sp); [apply Hrec | apply lift_total]; auto. }
      destruct Hexp as [[se st1] He]. rewrite He. simpl.
      destruct (critical_clauses _ _ _ _ _ _) as [cls st2].
      destruct (Hrec sc st2) as [[b st3] Hb]; auto. rewrite Hb. simpl. eexists; reflexivity.
    + assert (Hexp : exists r, (if Nat.leb (List.length xs) 1 || is_leaf_statement sc then rec sc st else lift rec E sc st) = SOk r).
      { destruct (Nat.leb (List.length xs) 1 || is_leaf_statement sc); [apply Hrec | apply lift_total]; auto. }
      destruct Hexp as [[se st1] He]. rewrite He. simpl.
      destruct (critical_clauses _ _ _ _ _ _) as [cls st2].
      destruct (Hrec sp st2) as [[b st3] Hb]; auto. rewrite Hb. simpl. eexists; reflexivity.
Qed.

Lemma unknown_total : forall vp vc ty st,
  decl_found (e_data E) (e_codata E) ty = true -> exists r, shrink_unknown_cuts E vp vc ty st = SOk r.
Proof.
  intros vp vc ty st Hd. unfold shrink_unknown_cuts. destruct ty as [|name]; [eexists; reflexivity|].
  destruct (xtors_of_found (CDecl name) name eq_refl Hd) as [xs Hxs].
  remember (is_codata (e_codata E) (CDecl name)) as cd. rewrite Hxs. cbn [sbind].
  destruct cd; cbv beta iota; destruct (unknown_clauses _ _ _ _ _); eexists; reflexivity.
Qed.

Lemma known_total : forall x args cls st,
  fsz_clauses cls <= n -> shape_clauses (e_data E) (e_codata E) cls = true ->
  existsb (fun c => cident_eqb (clause_xtor c) x) cls = true ->
  exists r, shrink_known_cuts rec x args cls st = SOk r.
Proof.
  intros x args cls st Hsz Hsh Hex. unfold shrink_known_cuts.
  destruct (find (fun c => cident_eqb (clause_xtor c) x) cls) as [cl|] eqn:Hf.
  - apply find_some in Hf as [Hin _].
    assert (Hcl : fsz_clause cl <= fsz_clauses cls) by now apply fsz_clause_in.
    unfold shape_clauses in Hsh. rewrite forallb_forall in Hsh. specialize (Hsh cl Hin).
    destruct cl as [c y ctx b]. simpl in *. apply Hrec; [rewrite fsz_subst; lia | now rewrite shape_subst].
  - exfalso. apply existsb_exists in Hex as [c [Hin Hc]].
    eapply find_none in Hf; [|exact Hin]. simpl in Hf. congruence.
Qed.

Lemma shrink_step_total : forall s st, fsz s <= S n -> shapeS s = true -> exists r, shrink_step rec E s st = SOk r.
Proof.
  intros s st Hsz Hsh. destruct s as [p ty k|so a b t e|nl a nx|f args|v]; simpl in Hsz.
  - (* cut *)
    change (shapeS (FsCut p ty k)) with (cut_shape (e_data E) (e_codata E) p ty k && shape_term (e_data E) (e_codata E) p && shape_term (e_data E) (e_codata E) k) in Hsh.
    apply andb_prop in Hsh as [Hsh Hk]. apply andb_prop in Hsh as [Hcut Hp].
    simpl. unfold shrink_cut.
    destruct p as [c1 v1 t1|l1|a1 o1 b1|c1 v1 s1 t1|c1 x1 args1 t1|c1 cls1 t1];
    destruct k as [c2 v2 t2|l2|a2 o2 b2|c2 v2 s2 t2|c2 x2 args2 t2|c2 cls2 t2];
      try discriminate Hcut;
      rewrite ?fsz_term_xcase in Hsz; rewrite ?shape_term_xcase in Hp, Hk; simpl in Hsz, Hp, Hk.
    + (* XVar, XVar *) now apply unknown_total.
    + (* XVar, Mu *) unfold shrink_renaming. apply Hrec; [rewrite fsz_subst; lia | now rewrite shape_subst].
    + (* XVar, Xtor *) eexists; reflexivity.
    + (* XVar, XCase *)
      destruct (shrink_clauses_total cls2 st) as [[cls' st1] Hc]; [lia | exact Hk |]. rewrite Hc. simpl. eexists; reflexivity.
    + (* Lit, XVar *) destruct (fresh_var st). eexists; reflexivity.
    + (* Lit, Mu *) destruct (Hrec s2 st) as [[b st1] Hb]; [lia | exact Hk |]. rewrite Hb. simpl. eexists; reflexivity.
    + (* Op, XVar *) destruct (fresh_var st). eexists; reflexivity.
    + (* Op, Mu *) destruct (Hrec s2 st) as [[b st1] Hb]; [lia | exact Hk |]. rewrite Hb. simpl. eexists; reflexivity.
    + (* Mu, XVar *) unfold shrink_renaming. apply Hrec; [rewrite fsz_subst; lia | now rewrite shape_subst].
    + (* Mu, Mu *) apply critical_total; auto; lia.
    + (* Mu, Xtor *) destruct (Hrec s1 st) as [[b st1] Hb]; [lia | exact Hp |]. rewrite Hb. simpl. eexists; reflexivity.
    + (* Mu, XCase *)
      destruct (shrink_clauses_total cls2 st) as [[cls' st1] Hc]; [lia | exact Hk |]. rewrite Hc. simpl.
      destruct (Hrec s1 st1) as [[b st2] Hb]; [lia | exact Hp |]. rewrite Hb. simpl. eexists; reflexivity.
    + (* Xtor, XVar *) eexists; reflexivity.
    + (* Xtor, Mu *) destruct (Hrec s2 st) as [[b st1] Hb]; [lia | exact Hk |]. rewrite Hb. simpl. eexists; reflexivity.
    + (* Xtor, XCase *) apply known_total; auto; lia.
    + (* XCase, XVar *)
      destruct (shrink_clauses_total cls1 st) as [[cls' st1] Hc]; [lia | exact Hp |]. rewrite Hc. simpl. eexists; reflexivity.
    + (* XCase, Mu *)
      destruct (shrink_clauses_total cls1 st) as [[cls' st1] Hc]; [lia | exact Hp |]. rewrite Hc. simpl.
      destruct (Hrec s2 st1) as [[b st2] Hb]; [lia | exact Hk |]. rewrite Hb. simpl. eexists; reflexivity.
    + (* XCase, Xtor *) apply known_total; auto; lia.
  - simpl in Hsh. apply andb_prop in Hsh as [Ht He]. simpl.
    destruct (Hrec t st) as [[t' st1] H1]; [lia | exact Ht |]. rewrite H1. simpl.
    destruct (Hrec e st1) as [[e' st2] H2]; [lia | exact He |]. rewrite H2. simpl. eexists; reflexivity.
  - simpl in Hsh. simpl. destruct (Hrec nx st) as [[t' st1] H1]; [lia | exact Hsh |]. rewrite H1. simpl. eexists; reflexivity.
  - eexists; reflexivity.
  - eexists; reflexivity.
Qed.
End TotalStep.

Lemma shrink_stmt_total : forall E fuel s st,
  fsz s <= fuel -> shape_stmt (e_data E) (e_codata E) s = true -> exists r, shrink_stmt fuel E s st = SOk r.
Proof.
  intros E fuel. induction fuel as [|fuel IH]; intros s st Hsz Hsh.
  - pose proof (fsz_pos s). lia.
  - simpl. apply shrink_step_total with (n := fuel); auto.
Qed.


Lemma cty_eqb_eq_i64 : forall t, cty_eqb t CI64 = true -> t = CI64.
Proof. destruct t; simpl; [reflexivity | discriminate]. Qed.
Lemma seq_none : forall {X} (a b : option X),
  (match a with None => b | Some e => Some e end) = None -> a = None /\ b = None.
Proof. intros X [e|] b H; [discriminate | auto]. Qed.
Lemma fensure_none : forall b m, fensure b m = None -> b = true.
Proof. intros [|] m H; [reflexivity | discriminate]. Qed.
Ltac break_checks :=
  repeat match goal with
         | H : (match ?a with None => _ | Some _ => Some _ end) = None |- _ =>
             let H1 := fresh H in apply seq_none in H as [H1 H]
         | H : fensure _ _ = None |- _ => apply fensure_none in H
         end.

Lemma is_codata_find : forall C n,
  is_codata C (CDecl n) = is_some (find_decl C n).
Proof.
  intros C n. unfold is_codata, find_decl. induction C as [|d r IH]; simpl; [reflexivity|].
  destruct (cident_eqb (ctname d) n); simpl; auto.
Qed.
Lemma find_app_l : forall {X} (f : X -> bool) l1 l2 x, find f l1 = Some x -> find f (l1 ++ l2) = Some x.
Proof. induction l1; simpl; intros; [discriminate|]. destruct (f a); auto. Qed.

Lemma clauses_match_exists : forall side n cls xs x sg,
  clauses_match side n cls xs = None -> find (fun s => cident_eqb (cxname s) x) xs = Some sg ->
  existsb (fun c => cident_eqb (clause_xtor c) x) cls = true.
Proof.
  induction cls as [|[c y ctx b] r IH]; intros xs x sg Hm Hf; destruct xs as [|s xr]; simpl in *; try discriminate.
  break_checks. apply cident_eqb_eq in Hm1. subst y.
  destruct (cident_eqb (cxname s) x) eqn:Hx; simpl; [reflexivity|]. eapply IH; eauto.
Qed.

(* [cut_of p k a b]: the cut <p|k> consists of a and b, in either order.  Shrinking treats the two
   orientations alike, and so do the invariants below. *)
Definition cut_of (p k a b : fsterm) : Prop := (p = a /\ k = b) \/ (p = b /\ k = a).
Lemma cut_of_both : forall (F : fsterm -> Prop) p k a b, cut_of p k a b -> F p -> F k -> F a /\ F b.
Proof. intros F p k a b [[-> ->]|[-> ->]] Hp Hk; auto. Qed.

(* the term [a] stands on side [s] of the cut <p|k>, [b] on the other *)
Definition sided (s : cchi) (p k a b : fsterm) : Prop :=
  match s with CPrd => p = a /\ k = b | CCns => p = b /\ k = a end.
Lemma sided_cut_of : forall s p k a b, sided s p k a b -> cut_of p k a b.
Proof. intros [|] p k a b H; [left | right]; exact H. Qed.
Lemma sided_both : forall (F : fsterm -> Prop) s p k a b, sided s p k a b -> F p -> F k -> F a /\ F b.
Proof. intros F s p k a b H. apply cut_of_both. eapply sided_cut_of; eauto. Qed.

Section TypingShape.
Variables data codata : list ctydecl.
Variable defs : list fsdef.
Hypothesis Hdisj : forall n, find_decl data n <> None -> find_decl codata n = None.
Notation D := (data ++ [cont_int]).

Lemma ty_ok_found : forall ty, ty_ok data codata ty = true -> decl_found D codata ty = true.
Proof.
  intros [|n] H; [reflexivity|]. unfold decl_found. rewrite is_codata_find. unfold ty_ok in H.
  destruct (find_decl codata n) eqn:Hc; simpl.
  - unfold lookup_type_declaration. unfold find_decl in Hc. now rewrite Hc.
  - destruct (find_decl data n) eqn:Hd; [|discriminate].
    unfold lookup_type_declaration. unfold find_decl in Hd. now rewrite (find_app_l _ _ _ _ Hd).
Qed.

(* the checker, one equation per syntactic form *)
Definition check_bodies (G : cctx) (cls : list fsclause) : option string :=
  (fix go (cls : list fsclause) {struct cls} : option string :=
     match cls with
     | [] => None
     | FsClause _ _ ctx body :: cr =>
         match check_stmt data codata defs (app ctx G) body with None => go cr | Some e => Some e end
     end) cls.
Lemma check_bodies_cons : forall G c x ctx body cr,
  check_bodies G (FsClause c x ctx body :: cr) =
  match check_stmt data codata defs (app ctx G) body with None => check_bodies G cr | Some e => Some e end.
Proof. reflexivity. Qed.
Lemma check_term_xcase_eq : forall G side ty c cls t',
  check_term data codata defs G side ty (FsXCase c cls t') =
  match fensure (cchi_eqb c side) "xcase with the wrong prdcns field" with
  | Some e => Some e
  | None =>
  match fensure (cty_eqb t' ty) ("xcase annotated " ++ show_cty t' ++ " in a cut at " ++ show_cty ty)%string with
  | Some e => Some e
  | None =>
      match ty with
      | CI64 => Some "xcase at type i64"%string
      | CDecl n =>
          match find_decl (match side with CPrd => codata | CCns => data end) n with
          | None => Some ("xcase: " ++ show_cident n ++ " is no " ++
                          (match side with CPrd => "codata" | CCns => "data" end) ++ " type")%string
          | Some d =>
              match clauses_match side n cls (ctxtors d) with
              | Some e => Some e
              | None => check_bodies G cls
              end
          end
      end
  end end.
Proof. reflexivity. Qed.
Lemma check_term_mu_eq : forall G side ty c v s t',
  check_term data codata defs G side ty (FsMu c v s t') =
  match fensure (cchi_eqb c side) "mu with the wrong prdcns field" with
  | Some e => Some e
  | None =>
  match fensure (cty_eqb t' ty) ("mu " ++ show_cident v ++ " annotated " ++ show_cty t' ++ " in a cut at " ++ show_cty ty)%string with
  | Some e => Some e
  | None => check_stmt data codata defs (mkcb v (opp side) ty :: G) s
  end end.
Proof. reflexivity. Qed.
Lemma check_stmt_cut_eq : forall G p ty k,
  check_stmt data codata defs G (FsCut p ty k) =
  match fensure (ty_ok data codata ty) ("cut at undeclared type " ++ show_cty ty)%string with
  | Some e => Some e
  | None =>
  match check_term data codata defs G CPrd ty p with
  | Some e => Some e
  | None => check_term data codata defs G CCns ty k
  end end.
Proof. reflexivity. Qed.
Lemma check_stmt_ifc_eq : forall G so a b t e,
  check_stmt data codata defs G (FsIfC so a b t e) =
  match fbound G a CPrd CI64 with
  | Some e => Some e
  | None =>
  match (match b with Some b' => fbound G b' CPrd CI64 | None => None end) with
  | Some e => Some e
  | None =>
  match check_stmt data codata defs G t with
  | Some e => Some e
  | None => check_stmt data codata defs G e
  end end end.
Proof. reflexivity. Qed.
Lemma check_stmt_print_eq : forall G nl a next,
  check_stmt data codata defs G (FsPrint nl a next) =
  match fbound G a CPrd CI64 with Some e => Some e | None => check_stmt data codata defs G next end.
Proof. reflexivity. Qed.

(* what a well-typed cut, literal, operation, xtor or (co)case says about its parts, its side and its type *)
Lemma lit_typing : forall G side ty n,
  check_term data codata defs G side ty (FsLit n) = None -> side = CPrd /\ ty = CI64.
Proof.
  intros G side ty n H. cbn [check_term] in H. apply seq_none in H as [Hs Ht]. apply fensure_none in Hs, Ht.
  split; [destruct side; [reflexivity | discriminate] | now apply cty_eqb_eq_i64].
Qed.
Lemma op_typing : forall G side ty a o b,
  check_term data codata defs G side ty (FsOp a o b) = None ->
  side = CPrd /\ ty = CI64 /\ fbound G a CPrd CI64 = None /\ fbound G b CPrd CI64 = None.
Proof.
  intros G side ty a o b H. cbn [check_term] in H. apply seq_none in H as [Hs H]. apply seq_none in H as [Ht H].
  apply seq_none in H as [Ha Hb]. apply fensure_none in Hs, Ht.
  split; [destruct side; [reflexivity | discriminate] | split; [now apply cty_eqb_eq_i64 | auto]].
Qed.
Lemma cut_typing : forall G p ty k, check_stmt data codata defs G (FsCut p ty k) = None ->
  ty_ok data codata ty = true /\ check_term data codata defs G CPrd ty p = None /\ check_term data codata defs G CCns ty k = None.
Proof.
  intros G p ty k H. rewrite check_stmt_cut_eq in H. apply seq_none in H as [Hty H]. apply seq_none in H as [Hp Hk].
  apply fensure_none in Hty. auto.
Qed.
Lemma sided_typing : forall G s p ty k a b, sided s p k a b ->
  check_stmt data codata defs G (FsCut p ty k) = None ->
  ty_ok data codata ty = true /\ check_term data codata defs G s ty a = None /\ check_term data codata defs G (opp s) ty b = None.
Proof. intros G [|] p ty k a b [-> ->] H; apply cut_typing in H as (Hty & Hp & Hk); auto. Qed.
Lemma var_typing : forall G side ty c v t', check_term data codata defs G side ty (FsXVar c v t') = None ->
  fbound G v side ty = None.
Proof. intros G side ty c v t' H. cbn [check_term] in H. apply seq_none in H as [_ H]. now apply seq_none in H as [_ H]. Qed.
Lemma mu_typing : forall G side ty c v s t', check_term data codata defs G side ty (FsMu c v s t') = None ->
  check_stmt data codata defs (mkcb v (opp side) ty :: G) s = None.
Proof. intros G side ty c v s t' H. rewrite check_term_mu_eq in H. apply seq_none in H as [_ H]. now apply seq_none in H as [_ H]. Qed.
Lemma xtor_typing : forall G side ty c K args t',
  check_term data codata defs G side ty (FsXtor c K args t') = None ->
  exists T d sg, ty = CDecl T /\ find_decl (match side with CPrd => data | CCns => codata end) T = Some d /\
    find_cxtor d K = Some sg /\ fargs_ok ("xtor " ++ show_cident K) G args (cxargs sg) = None.
Proof.
  intros G side ty c K args t' H. cbn [check_term] in H. apply seq_none in H as [_ H]. apply seq_none in H as [_ H].
  destruct ty as [|T]; [discriminate|].
  destruct (find_decl _ T) as [d|] eqn:Hd; [|discriminate].
  destruct (find_cxtor d K) as [sg|] eqn:Hx; [|discriminate]. exists T, d, sg. auto.
Qed.
Lemma xcase_typing : forall G side ty c cls t',
  check_term data codata defs G side ty (FsXCase c cls t') = None ->
  exists T d, ty = CDecl T /\ find_decl (match side with CPrd => codata | CCns => data end) T = Some d /\
    clauses_match side T cls (ctxtors d) = None /\ check_bodies G cls = None.
Proof.
  intros G side ty c cls t' H. rewrite check_term_xcase_eq in H. apply seq_none in H as [_ H]. apply seq_none in H as [_ H].
  destruct ty as [|T]; [discriminate|].
  destruct (find_decl _ T) as [d|] eqn:Hd; [|discriminate]. apply seq_none in H as [H1 H2]. exists T, d. auto.
Qed.

(* Of the 36 pairs of term forms, typing leaves those [cut_shape] accepts: a consumer is no literal or
   operation, an integer meets no xtor or (co)case, and two xtors or two (co)cases would need a type
   that is both data and codata. *)
Lemma cut_shape_typed : forall G p ty k,
  ty_ok data codata ty = true ->
  check_term data codata defs G CPrd ty p = None -> check_term data codata defs G CCns ty k = None ->
  cut_shape D codata p ty k = true.
Proof.
  intros G p ty k Hty Hp Hk.
  destruct k as [c2 v2 t2|l2|a2 o2 b2|c2 v2 s2 t2|c2 x2 args2 t2|c2 cls2 t2].
  - destruct p; try reflexivity. now apply ty_ok_found.
  - now apply lit_typing in Hk as [[=] _].
  - now apply op_typing in Hk as [[=] _].
  - destruct p; try reflexivity. now apply ty_ok_found.
  - apply xtor_typing in Hk as (n & d & sg & -> & Hd & Hx & _).
    destruct p as [c1 v1 t1|l1|a1 o1 b1|c1 v1 s1 t1|c1 x1 args1 t1|c1 cls1 t1]; try reflexivity.
    + now apply lit_typing in Hp as [_ [=]].
    + now apply op_typing in Hp as [_ [[=] _]].
    + apply xtor_typing in Hp as (n' & d' & sg' & [= <-] & Hd' & _).
      rewrite Hdisj in Hd; [discriminate | congruence].
    + apply xcase_typing in Hp as (n' & d' & [= <-] & Hd' & Hcm & _).
      rewrite Hd in Hd'. injection Hd' as <-. exact (clauses_match_exists _ _ _ _ _ _ Hcm Hx).
  - apply xcase_typing in Hk as (n & d & -> & Hd & Hcm & _).
    destruct p as [c1 v1 t1|l1|a1 o1 b1|c1 v1 s1 t1|c1 x1 args1 t1|c1 cls1 t1]; try reflexivity.
    + now apply lit_typing in Hp as [_ [=]].
    + now apply op_typing in Hp as [_ [[=] _]].
    + apply xtor_typing in Hp as (n' & d' & sg' & [= <-] & Hd' & Hx & _).
      rewrite Hd in Hd'. injection Hd' as <-. exact (clauses_match_exists _ _ _ _ _ _ Hcm Hx).
    + apply xcase_typing in Hp as (n' & d' & [= <-] & Hd' & _).
      rewrite Hdisj in Hd'; [discriminate | congruence].
Qed.

Lemma check_shape_all :
  (forall t G side ty, check_term data codata defs G side ty t = None -> shape_term D codata t = true) /\
  (forall cl G, check_stmt data codata defs G (clause_body cl) = None -> shape_clause D codata cl = true) /\
  (forall s G, check_stmt data codata defs G s = None -> shape_stmt D codata s = true).
Proof.
  apply fs_mutind; intros; try reflexivity.
  - (* Mu *) rewrite check_term_mu_eq in H0. break_checks. simpl. eapply H; eauto.
  - (* XCase *) rewrite shape_term_xcase. apply xcase_typing in H0 as (n & d & _ & _ & _ & H0).
    unfold shape_clauses. induction H as [|cl r Hcl Hr IH]; simpl; [reflexivity|].
    destruct cl as [c' x ctx body]. rewrite check_bodies_cons in H0. break_checks.
    apply andb_true_intro; split; [eapply Hcl; eauto | apply IH; exact H0].
  - (* Clause *) simpl in *. eapply H; eauto.
  - (* Cut *) rewrite check_stmt_cut_eq in H1. break_checks.
    change (shape_stmt D codata (FsCut p t k)) with (cut_shape D codata p t k && shape_term D codata p && shape_term D codata k).
    repeat (apply andb_true_intro; split); [eapply cut_shape_typed | eapply H | eapply H0]; eauto.
  - (* IfC *) rewrite check_stmt_ifc_eq in H1. break_checks. simpl. apply andb_true_intro; split; [eapply H | eapply H0]; eauto.
  - (* Print *) rewrite check_stmt_print_eq in H0. break_checks. simpl. eapply H; eauto.
Qed.
Lemma check_stmt_shape : forall s G, check_stmt data codata defs G s = None -> shape_stmt D codata s = true.
Proof. apply check_shape_all. Qed.
End TypingShape.

Lemma nodup_by_app_disjoint : forall (l1 l2 : list cident) x,
  nodup_by cident_eqb (l1 ++ l2) = true -> In x l1 -> In x l2 -> False.
Proof.
  induction l1 as [|a r IH]; intros l2 x Hn H1 H2; [contradiction|].
  simpl in Hn. apply andb_prop in Hn as [Ha Hr]. destruct H1 as [->|H1].
  - apply negb_true_iff in Ha. assert (existsb (cident_eqb x) (r ++ l2) = true).
    { apply existsb_exists. exists x. split; [apply in_or_app; now right | apply cident_eqb_refl]. }
    congruence.
  - eapply IH; eauto.
Qed.
Lemma find_decl_some_in : forall ts n d, find_decl ts n = Some d -> In n (map ctname ts).
Proof.
  intros ts n d H. unfold find_decl in H. apply find_some in H as [Hin Heq].
  apply cident_eqb_eq in Heq. subst n. now apply in_map.
Qed.
Lemma nodup_types_disjoint : forall data codata,
  nodup_by cident_eqb (map ctname (data ++ codata)) = true ->
  forall n, find_decl data n <> None -> find_decl codata n = None.
Proof.
  intros data codata Hn n Hd. rewrite map_app in Hn.
  destruct (find_decl data n) as [d|] eqn:H1; [|congruence].
  destruct (find_decl codata n) as [d'|] eqn:H2; [|reflexivity].
  exfalso. eapply nodup_by_app_disjoint; eauto using find_decl_some_in.
Qed.

Lemma check_defs_in : forall p l d, check_defs p l = None -> In d l ->
  check_stmt (fspdata p) (fspcodata p) (fspdefs p) (fsdctx d) (fsdbody d) = None.
Proof.
  induction l as [|a r IH]; intros d Hc Hin; [contradiction|]. simpl in Hc. break_checks.
  destruct (check_stmt _ _ _ (fsdctx a) (fsdbody a)) eqn:Ha; [discriminate|].
  destruct Hin as [->|Hin]; [exact Ha | now apply IH].
Qed.

Lemma shrink_defs_total : forall data codata ds used m acc,
  (forall d, In d ds -> shape_stmt data codata (fsdbody d) = true) ->
  exists r, shrink_defs ds data codata used m acc = SOk r.
Proof.
  induction ds as [|d r IH]; intros used m acc Hsh; simpl; [eexists; reflexivity|].
  unfold shrink_def.
  destruct (shrink_stmt_total (mksenv data codata (fst (fsdname d))) (fsz (fsdbody d)) (fsdbody d) (mksst m [] used))
    as [[b st] Hb]; [lia | apply Hsh; now left |].
  rewrite Hb. simpl. apply IH. intros d' Hin. apply Hsh. now right.
Qed.

Lemma existsb_app_false : forall {X} (f : X -> bool) l1 l2, existsb f (l1 ++ l2) = false -> existsb f l1 = false /\ existsb f l2 = false.
Proof. intros. rewrite existsb_app in H. now apply orb_false_iff in H. Qed.

(* the panics of shrinking are unreachable on well-typed input *)
Theorem shrink_total : forall p, wt_fs p = true -> exists q, shrink_prog p = SOk q.
Proof.
  intros p Hwt. unfold wt_fs in Hwt. destruct (check_fs p) eqn:Hc; [discriminate|]. clear Hwt.
  unfold check_fs in Hc. break_checks.
  apply negb_true_iff in Hc2. apply existsb_app_false in Hc2 as [Hd Hcd].
  unfold shrink_prog. unfold cont_name_fs in *. unfold cont_name. rewrite Hd, Hcd. simpl.
  destruct (shrink_defs_total (fspdata p ++ [cont_int]) (fspcodata p) (fspdefs p) (map fsdname (fspdefs p)) (fspmax p) []) as [[defs m] Hs].
  - intros d Hin. eapply check_stmt_shape.
    + apply nodup_types_disjoint. exact Hc1.
    + eapply check_defs_in; eauto.
  - rewrite Hs. simpl. eexists; reflexivity.
Qed.

(* i64: producers stay integers (ext), consumers become continuations (cns _Cont);
   data: chirality kept; codata: chirality flipped (so data producers and codata consumers are
   prd, data consumers and codata producers are cns). *)
Theorem shrink_binding_chirality : forall codata v n,
  shrink_binding codata (mkcb v CPrd CI64) = mkb v Ext I64 /\
  shrink_binding codata (mkcb v CCns CI64) = mkb v Cns (Decl cont_name) /\
  (is_codata codata (CDecl n) = false ->
     shrink_binding codata (mkcb v CPrd (CDecl n)) = mkb v Prd (Decl n) /\
     shrink_binding codata (mkcb v CCns (CDecl n)) = mkb v Cns (Decl n)) /\
  (is_codata codata (CDecl n) = true ->
     shrink_binding codata (mkcb v CPrd (CDecl n)) = mkb v Cns (Decl n) /\
     shrink_binding codata (mkcb v CCns (CDecl n)) = mkb v Prd (Decl n)).
Proof.
  intros. unfold shrink_binding. simpl. split; [reflexivity|]. split; [reflexivity|]. split; intros Hc; rewrite Hc; split; reflexivity.
Qed.

(* For <mu a.sp | ty | mu~ x.sc> the result is `create v = {clauses}; next`:
   - i64:    v = a (the producer's covariable, a continuation), the single clause Ret(x) holds the
             shrunk CONSUMER body, and `next` - what runs first - is the shrunk PRODUCER body;
   - data:   v = a, next = the shrunk PRODUCER body (the consumer is suspended in the clauses);
   - codata: v = x, next = the shrunk CONSUMER body (the producer is suspended in the clauses).
   In the two declared-type cases every clause re-binds the expanded variable with `let` and
   continues with the shrunk expanded side (in place, or a call to its lifted definition). *)
Definition all_let_clauses (cls : list clause) : Prop :=
  Forall (fun c => exists v t tag next, cl_body c = Let v t tag (cl_ctx c) next /\ tag = cl_xtor c) cls.
Lemma critical_clauses_lets : forall codata ve tty se xs st cls st',
  critical_clauses codata ve tty se xs st = (cls, st') -> all_let_clauses cls.
Proof.
  induction xs as [|[xt args] r IH]; intros st cls st' H; simpl in H.
  - inv H. constructor.
  - destruct (fresh_env _ _) as [env sta].
    destruct (critical_clauses _ _ _ _ r _) as [r' stc] eqn:Hr. inv H.
    constructor; [|eapply IH; eauto]. simpl. repeat eexists.
Qed.

Theorem critical_pair_order : forall rec E vp sp vc sc ty st s st',
  shrink_critical_pairs rec E vp sp vc sc ty st = SOk (s, st') ->
  match ty with
  | CI64 =>
      exists body next st1,
        rec sc st = SOk (body, st1) /\ rec sp st1 = SOk (next, st') /\
        s = Create vp (Decl cont_name) None [(ret_name, [mkb vc Ext I64], body)] next
  | CDecl n =>
      exists cls next st2,
        all_let_clauses cls /\
        if is_codata (e_codata E) ty
        then rec sc st2 = SOk (next, st') /\ s = Create vc (Decl n) None cls next     (* consumer first *)
        else rec sp st2 = SOk (next, st') /\ s = Create vp (Decl n) None cls next     (* producer first *)
  end.
Proof.
  intros rec E vp sp vc sc ty st s st' H. unfold shrink_critical_pairs in H. destruct ty as [|n].
  - destruct (rec sc st) as [[body st1]|] eqn:H1; [|discriminate]. cbn [sbind] in H.
    destruct (rec sp st1) as [[next st2]|] eqn:H2; [|discriminate]. cbn [sbind] in H. inv H.
    repeat eexists; eauto.
  - destruct (xtors_of E (CDecl n) n) as [xs|]; [|discriminate]. cbn [sbind] in H.
    destruct (is_codata (e_codata E) (CDecl n)); cbv beta iota in H.
    + destruct (if (_ || _)%bool then _ else _) as [[se st1]|]; [|discriminate]. cbn [sbind] in H.
      destruct (critical_clauses _ _ _ _ _ _) as [cls st2] eqn:Hc.
      destruct (rec sc st2) as [[next st3]|] eqn:H2; [|discriminate]. cbn [sbind] in H. inv H.
      exists cls, next, st2. split; [eapply critical_clauses_lets; eauto | split; auto].
    + destruct (if (_ || _)%bool then _ else _) as [[se st1]|]; [|discriminate]. cbn [sbind] in H.
      destruct (critical_clauses _ _ _ _ _ _) as [cls st2] eqn:Hc.
      destruct (rec sp st2) as [[next st3]|] eqn:H2; [|discriminate]. cbn [sbind] in H. inv H.
      exists cls, next, st2. split; [eapply critical_clauses_lets; eauto | split; auto].
Qed.

Lemma clauses_match_find : forall side n cls xs x sg,
  clauses_match side n cls xs = None -> find (fun s => cident_eqb (cxname s) x) xs = Some sg ->
  exists cl, find (fun c => cident_eqb (clause_xtor c) x) cls = Some cl /\
             clause_xtor cl = x /\ fparams_ok (clause_ctx cl) (cxargs sg) = true.
Proof.
  induction cls as [|[c y ctx b] r IH]; intros xs x sg Hm Hf; destruct xs as [|s xr]; simpl in *; try discriminate.
  break_checks. apply cident_eqb_eq in Hm1. subst y.
  destruct (cident_eqb (cxname s) x) eqn:Hx.
  - inv Hf. eexists; repeat split; eauto. now apply cident_eqb_eq.
  - eapply IH; eauto.
Qed.
Lemma fparams_ok_length : forall ps sg, fparams_ok ps sg = true -> List.length ps = List.length sg.
Proof.
  induction ps as [|a r IH]; destruct sg as [|s sr]; simpl; intros H; try discriminate; [reflexivity|].
  apply andb_prop in H as [_ H]. f_equal. now apply IH.
Qed.
Lemma fargs_ok_length : forall what G args sg, fargs_ok what G args sg = None -> List.length args = List.length sg.
Proof.
  induction args as [|a r IH]; destruct sg as [|s sr]; simpl; intros H; try discriminate; [reflexivity|].
  break_checks. f_equal. now apply IH.
Qed.

(* A cut of a known constructor against a case continues with the body of the FIRST clause for
   that constructor, its parameters replaced by the arguments, zipped in order; by typing the
   clause exists and has as many parameters as there are arguments. *)
Theorem known_cut_selects_ctor : forall data codata defs G rec E c1 x args t1 ty c2 cls t2 st,
  check_term data codata defs G CPrd ty (FsXtor c1 x args t1) = None ->
  check_term data codata defs G CCns ty (FsXCase c2 cls t2) = None ->
  exists cl,
    find (fun c => cident_eqb (clause_xtor c) x) cls = Some cl /\ clause_xtor cl = x /\
    List.length (clause_ctx cl) = List.length args /\
    shrink_cut rec E (FsXtor c1 x args t1) ty (FsXCase c2 cls t2) st
    = rec (subst_stmt (combine (cids (clause_ctx cl)) (cvars args)) (clause_body cl)) st.
Proof.
  intros data codata defs G rec E c1 x args t1 ty c2 cls t2 st Hp Hk.
  apply xtor_typing in Hp as (n & d & sg & -> & Hd & Hx & Hfa).
  apply xcase_typing in Hk as (n' & d' & [= <-] & Hd' & Hcm & _). rewrite Hd in Hd'. injection Hd' as <-.
  destruct (clauses_match_find _ _ _ _ _ _ Hcm Hx) as (cl & Hf & Hn & Hps).
  exists cl. repeat split; auto.
  - rewrite (fparams_ok_length _ _ Hps). symmetry. eapply fargs_ok_length; eauto.
  - simpl. unfold shrink_known_cuts. now rewrite Hf.
Qed.
(* ... and dually a cocase against a known destructor *)
Theorem known_cut_selects_dtor : forall data codata defs G rec E c1 cls t1 ty c2 x args t2 st,
  check_term data codata defs G CPrd ty (FsXCase c1 cls t1) = None ->
  check_term data codata defs G CCns ty (FsXtor c2 x args t2) = None ->
  exists cl,
    find (fun c => cident_eqb (clause_xtor c) x) cls = Some cl /\ clause_xtor cl = x /\
    List.length (clause_ctx cl) = List.length args /\
    shrink_cut rec E (FsXCase c1 cls t1) ty (FsXtor c2 x args t2) st
    = rec (subst_stmt (combine (cids (clause_ctx cl)) (cvars args)) (clause_body cl)) st.
Proof.
  intros data codata defs G rec E c1 cls t1 ty c2 x args t2 st Hp Hk.
  apply xtor_typing in Hk as (n & d & sg & -> & Hd & Hx & Hfa).
  apply xcase_typing in Hp as (n' & d' & [= <-] & Hd' & Hcm & _). rewrite Hd in Hd'. injection Hd' as <-.
  destruct (clauses_match_find _ _ _ _ _ _ Hcm Hx) as (cl & Hf & Hn & Hps).
  exists cl. repeat split; auto.
  - rewrite (fparams_ok_length _ _ Hps). symmetry. eapply fargs_ok_length; eauto.
  - simpl. unfold shrink_known_cuts. now rewrite Hf.
Qed.

(* what the zipped substitution does: the i-th parameter becomes the i-th argument *)
Lemma subst_combine_nth : forall ids args i nm d,
  NoDup ids -> List.length ids = List.length args -> i < List.length ids ->
  subst_ident (combine ids args) (nm, nth i ids 0%N) = nth i args d.
Proof.
  induction ids as [|a r IH]; intros args i nm d Hnd Hlen Hi; simpl in Hi; [lia|].
  destruct args as [|b br]; [discriminate|]. inv Hnd. simpl in Hlen.
  destruct i as [|i]; simpl.
  - unfold cid_id. simpl. now rewrite N.eqb_refl.
  - unfold cid_id. simpl. destruct (N.eqb a (nth i r 0%N)) eqn:He.
    + apply N.eqb_eq in He. exfalso. apply H1. rewrite He. apply nth_In. lia.
    + apply IH; auto; lia.
Qed.

(* the BTreeSet model: sorted duplicate-free lists *)
Section SortedSet.
Variable X : Type.
Variable cmp : X -> X -> comparison.
Hypothesis cmp_eq : forall a b, cmp a b = Datatypes.Eq -> a = b.
Hypothesis cmp_refl : forall a, cmp a a = Datatypes.Eq.
Hypothesis cmp_antisym : forall a b, cmp a b = CompOpp (cmp b a).
Hypothesis cmp_trans : forall a b c, cmp a b = Datatypes.Lt -> cmp b c = Datatypes.Lt -> cmp a c = Datatypes.Lt.

Definition lt (a b : X) : Prop := cmp a b = Datatypes.Lt.
Fixpoint ins (b : X) (l : list X) : list X :=
  match l with
  | [] => [b]
  | x :: r => match cmp b x with Datatypes.Lt => b :: l | Datatypes.Eq => l | Datatypes.Gt => x :: ins b r end
  end.
Fixpoint rem (b : X) (l : list X) : list X :=
  match l with
  | [] => []
  | x :: r => match cmp b x with Datatypes.Lt => l | Datatypes.Eq => r | Datatypes.Gt => x :: rem b r end
  end.
(* strictly increasing *)
Inductive ssorted : list X -> Prop :=
| ss_nil : ssorted []
| ss_cons : forall a l, ssorted l -> Forall (lt a) l -> ssorted (a :: l).

Lemma gt_lt : forall a b, cmp a b = Datatypes.Gt -> lt b a.
Proof. intros a b H. unfold lt. rewrite cmp_antisym, H. reflexivity. Qed.
Lemma lt_irrefl : forall a, ~ lt a a.
Proof. intros a H. unfold lt in H. rewrite cmp_refl in H. discriminate. Qed.

Lemma ins_forall : forall a b l, lt a b -> Forall (lt a) l -> Forall (lt a) (ins b l).
Proof.
  induction l as [|x r IH]; intros Hab Hl; simpl; [constructor; auto|].
  inversion Hl; subst. destruct (cmp b x); auto.
Qed.
Lemma ins_sorted : forall b l, ssorted l -> ssorted (ins b l).
Proof.
  induction l as [|x r IH]; intros Hs; simpl.
  - constructor; constructor.
  - inversion Hs; subst. destruct (cmp b x) eqn:Hc.
    + exact Hs.
    + constructor; [exact Hs|]. constructor; [exact Hc|].
      eapply Forall_impl; [|exact H2]. intros y Hy. eapply cmp_trans; eauto.
    + constructor; [apply IH; auto|]. apply ins_forall; auto. now apply gt_lt.
Qed.
Lemma rem_forall : forall a b l, Forall (lt a) l -> Forall (lt a) (rem b l).
Proof.
  induction l as [|x r IH]; intros Hl; simpl; [constructor|].
  inversion Hl; subst. destruct (cmp b x); auto.
Qed.
Lemma rem_sorted : forall b l, ssorted l -> ssorted (rem b l).
Proof.
  induction l as [|x r IH]; intros Hs; simpl; [constructor|].
  inversion Hs; subst. destruct (cmp b x); auto.
  constructor; [apply IH; auto | apply rem_forall; auto].
Qed.
Lemma ssorted_nodup : forall l, ssorted l -> NoDup l.
Proof.
  induction 1; constructor; auto.
  intro Hin. rewrite Forall_forall in H0. apply (lt_irrefl a). now apply H0.
Qed.
End SortedSet.
Arguments ssorted {X} cmp l.

(* the derived Ord of ContextBinding is a strict total order *)
Lemma ascii_compare_trans : forall a b c,
  Ascii.compare a b = Datatypes.Lt -> Ascii.compare b c = Datatypes.Lt -> Ascii.compare a c = Datatypes.Lt.
Proof.
  intros a b c. unfold Ascii.compare. rewrite !N.compare_lt_iff. apply N.lt_trans.
Qed.
Lemma ascii_compare_refl : forall a, Ascii.compare a a = Datatypes.Eq.
Proof. intro. unfold Ascii.compare. apply N.compare_refl. Qed.
Lemma string_compare_refl : forall s, String.compare s s = Datatypes.Eq.
Proof. induction s; simpl; [reflexivity|]. now rewrite ascii_compare_refl. Qed.
Lemma string_compare_trans : forall a b c,
  String.compare a b = Datatypes.Lt -> String.compare b c = Datatypes.Lt -> String.compare a c = Datatypes.Lt.
Proof.
  induction a as [|x a IH]; intros [|y b] [|z c] H1 H2; simpl in *; try discriminate; try reflexivity.
  destruct (Ascii.compare x y) eqn:Hxy; try discriminate;
  destruct (Ascii.compare y z) eqn:Hyz; try discriminate.
  - apply Ascii.compare_eq_iff in Hxy, Hyz. subst. rewrite ascii_compare_refl. eapply IH; eauto.
  - apply Ascii.compare_eq_iff in Hxy. subst. now rewrite Hyz.
  - apply Ascii.compare_eq_iff in Hyz. subst. now rewrite Hxy.
  - now rewrite (ascii_compare_trans _ _ _ Hxy Hyz).
Qed.

Section Lex.
Variables (A B : Type) (ca : A -> A -> comparison) (cb : B -> B -> comparison).
Hypothesis a_eq : forall a b, ca a b = Datatypes.Eq -> a = b.
Hypothesis a_refl : forall a, ca a a = Datatypes.Eq.
Hypothesis a_anti : forall a b, ca a b = CompOpp (ca b a).
Hypothesis a_trans : forall a b c, ca a b = Datatypes.Lt -> ca b c = Datatypes.Lt -> ca a c = Datatypes.Lt.
Hypothesis b_eq : forall a b, cb a b = Datatypes.Eq -> a = b.
Hypothesis b_refl : forall a, cb a a = Datatypes.Eq.
Hypothesis b_anti : forall a b, cb a b = CompOpp (cb b a).
Hypothesis b_trans : forall a b c, cb a b = Datatypes.Lt -> cb b c = Datatypes.Lt -> cb a c = Datatypes.Lt.
Definition lex (x y : A * B) : comparison :=
  match ca (fst x) (fst y) with Datatypes.Eq => cb (snd x) (snd y) | c => c end.
Lemma lex_eq : forall x y, lex x y = Datatypes.Eq -> x = y.
Proof.
  intros [a b] [a' b']. unfold lex. simpl. destruct (ca a a') eqn:H; try discriminate.
  intros H2. apply a_eq in H. apply b_eq in H2. now subst.
Qed.
Lemma lex_refl : forall x, lex x x = Datatypes.Eq.
Proof. intros [a b]. unfold lex. simpl. now rewrite a_refl, b_refl. Qed.
Lemma lex_anti : forall x y, lex x y = CompOpp (lex y x).
Proof.
  intros [a b] [a' b']. unfold lex. simpl. rewrite (a_anti a a'). destruct (ca a' a); simpl; auto.
Qed.
Lemma lex_trans : forall x y z, lex x y = Datatypes.Lt -> lex y z = Datatypes.Lt -> lex x z = Datatypes.Lt.
Proof.
  intros [a b] [a' b'] [a'' b'']. unfold lex. simpl.
  destruct (ca a a') eqn:H1; try discriminate; destruct (ca a' a'') eqn:H2; try discriminate; intros H3 H4.
  - apply a_eq in H1, H2. subst. rewrite a_refl. eauto.
  - apply a_eq in H1. subst. now rewrite H2.
  - apply a_eq in H2. subst. now rewrite H1.
  - now rewrite (a_trans _ _ _ H1 H2).
Qed.
End Lex.

Lemma n_compare_trans : forall a b c, N.compare a b = Datatypes.Lt -> N.compare b c = Datatypes.Lt -> N.compare a c = Datatypes.Lt.
Proof. intros a b c. rewrite !N.compare_lt_iff. apply N.lt_trans. Qed.

Lemma cident_compare_lex : forall a b, cident_compare a b = lex _ _ String.compare N.compare a b.
Proof. reflexivity. Qed.
Lemma cident_compare_eq : forall a b, cident_compare a b = Datatypes.Eq -> a = b.
Proof. intros a b. rewrite cident_compare_lex. apply lex_eq; [apply String.compare_eq_iff | apply N.compare_eq]. Qed.
Lemma cident_compare_refl : forall a, cident_compare a a = Datatypes.Eq.
Proof. intros a. rewrite cident_compare_lex. apply lex_refl; [apply string_compare_refl | apply N.compare_refl]. Qed.
Lemma cident_compare_anti : forall a b, cident_compare a b = CompOpp (cident_compare b a).
Proof. intros a b. rewrite !cident_compare_lex. apply lex_anti; [apply String.compare_antisym | intros; apply N.compare_antisym]. Qed.
Lemma cident_compare_trans : forall a b c,
  cident_compare a b = Datatypes.Lt -> cident_compare b c = Datatypes.Lt -> cident_compare a c = Datatypes.Lt.
Proof.
  intros a b c. rewrite !cident_compare_lex.
  apply lex_trans; [apply String.compare_eq_iff | apply string_compare_refl | apply string_compare_trans | apply n_compare_trans].
Qed.

Lemma cchi_compare_eq : forall a b, cchi_compare a b = Datatypes.Eq -> a = b.
Proof. intros [|] [|]; simpl; congruence. Qed.
Lemma cchi_compare_refl : forall a, cchi_compare a a = Datatypes.Eq.
Proof. intros [|]; reflexivity. Qed.
Lemma cchi_compare_anti : forall a b, cchi_compare a b = CompOpp (cchi_compare b a).
Proof. intros [|] [|]; reflexivity. Qed.
Lemma cchi_compare_trans : forall a b c,
  cchi_compare a b = Datatypes.Lt -> cchi_compare b c = Datatypes.Lt -> cchi_compare a c = Datatypes.Lt.
Proof. intros [|] [|] [|]; simpl; congruence. Qed.

Lemma cty_compare_eq : forall a b, cty_compare a b = Datatypes.Eq -> a = b.
Proof. intros [|x] [|y]; simpl; try congruence. intros H. apply cident_compare_eq in H. now subst. Qed.
Lemma cty_compare_refl : forall a, cty_compare a a = Datatypes.Eq.
Proof. intros [|x]; simpl; [reflexivity | apply cident_compare_refl]. Qed.
Lemma cty_compare_anti : forall a b, cty_compare a b = CompOpp (cty_compare b a).
Proof. intros [|x] [|y]; simpl; try reflexivity. apply cident_compare_anti. Qed.
Lemma cty_compare_trans : forall a b c,
  cty_compare a b = Datatypes.Lt -> cty_compare b c = Datatypes.Lt -> cty_compare a c = Datatypes.Lt.
Proof. intros [|x] [|y] [|z]; simpl; try congruence. apply cident_compare_trans. Qed.

Definition cb_tuple (b : cbinding) : cident * (cchi * cty) := (cbvar b, (cbchi b, cbty b)).
Lemma cbinding_compare_lex : forall a b,
  cbinding_compare a b = lex _ _ cident_compare (lex _ _ cchi_compare cty_compare) (cb_tuple a) (cb_tuple b).
Proof. reflexivity. Qed.
Lemma cb_tuple_inj : forall a b, cb_tuple a = cb_tuple b -> a = b.
Proof. intros [v c t] [v' c' t'] H. inversion H. reflexivity. Qed.
Lemma cbinding_compare_eq : forall a b, cbinding_compare a b = Datatypes.Eq -> a = b.
Proof.
  intros a b. rewrite cbinding_compare_lex. intros H. apply cb_tuple_inj. revert H.
  apply lex_eq; [apply cident_compare_eq | apply lex_eq; [apply cchi_compare_eq | apply cty_compare_eq]].
Qed.
Lemma cbinding_compare_refl : forall a, cbinding_compare a a = Datatypes.Eq.
Proof.
  intros a. rewrite cbinding_compare_lex.
  apply lex_refl; [apply cident_compare_refl | apply lex_refl; [apply cchi_compare_refl | apply cty_compare_refl]].
Qed.
Lemma cbinding_compare_anti : forall a b, cbinding_compare a b = CompOpp (cbinding_compare b a).
Proof.
  intros a b. rewrite !cbinding_compare_lex.
  apply lex_anti; [apply cident_compare_anti | apply lex_anti; [apply cchi_compare_anti | apply cty_compare_anti]].
Qed.
Lemma cbinding_compare_trans : forall a b c,
  cbinding_compare a b = Datatypes.Lt -> cbinding_compare b c = Datatypes.Lt -> cbinding_compare a c = Datatypes.Lt.
Proof.
  intros a b c. rewrite !cbinding_compare_lex.
  apply lex_trans; [apply cident_compare_eq | apply cident_compare_refl | apply cident_compare_trans |].
  apply lex_trans; [apply cchi_compare_eq | apply cchi_compare_refl | apply cchi_compare_trans | apply cty_compare_trans].
Qed.

(* bs_insert / bs_remove are the generic operations *)
Lemma bs_insert_ins : forall b l, bs_insert b l = ins _ cbinding_compare b l.
Proof. induction l; simpl; [reflexivity|]. now rewrite IHl. Qed.
Lemma bs_remove_rem : forall b l, bs_remove b l = rem _ cbinding_compare b l.
Proof. induction l; simpl; [reflexivity|]. now rewrite IHl. Qed.
Notation bsorted := (ssorted cbinding_compare).
Lemma bs_insert_sorted : forall b l, bsorted l -> bsorted (bs_insert b l).
Proof.
  intros. rewrite bs_insert_ins. apply ins_sorted; auto; [apply cbinding_compare_anti | apply cbinding_compare_trans].
Qed.
Lemma bs_remove_sorted : forall b l, bsorted l -> bsorted (bs_remove b l).
Proof. intros. rewrite bs_remove_rem. apply rem_sorted; auto. Qed.
Lemma bs_extend_sorted : forall bs l, bsorted l -> bsorted (bs_extend bs l).
Proof. induction bs; simpl; intros; auto. apply IHbs. now apply bs_insert_sorted. Qed.
Lemma bs_remove_all_sorted : forall bs l, bsorted l -> bsorted (bs_remove_all bs l).
Proof. induction bs; simpl; intros; auto. apply IHbs. now apply bs_remove_sorted. Qed.

Lemma tfv_sorted_all :
  (forall t acc, bsorted acc -> bsorted (tfv_term t acc)) /\
  (forall c acc, bsorted acc -> bsorted (tfv_clause c acc)) /\
  (forall s acc, bsorted acc -> bsorted (tfv_stmt s acc)).
Proof.
  apply fs_mutind; intros; simpl; auto using bs_insert_sorted, bs_remove_sorted, bs_extend_sorted, bs_remove_all_sorted.
  - (* XCase *) revert acc H0. induction H as [|cl r Hcl Hr IH]; intros acc Hacc; auto.
  - (* IfC *) apply H0, H. destruct b; auto using bs_insert_sorted.
Qed.
Lemma typed_free_vars_sorted : forall s, bsorted (typed_free_vars s).
Proof. intros. apply tfv_sorted_all. constructor. Qed.
Lemma typed_free_vars_nodup : forall s, NoDup (typed_free_vars s).
Proof.
  intros. eapply ssorted_nodup; [apply cbinding_compare_refl | apply typed_free_vars_sorted].
Qed.

(* the parameters `lift` draws for the free variables fvs when max_id = m: same name, chirality and
   type, ids m+1, m+2, ... in order *)
Fixpoint fresh_params (fvs : list cbinding) (m : N) : cctx :=
  match fvs with
  | [] => []
  | b :: r => mkcb (fst (cbvar b), N.succ m) (cbchi b) (cbty b) :: fresh_params r (N.succ m)
  end.
Lemma lift_params_spec : forall fvs st cx sub st1,
  lift_params fvs st = ((cx, sub), st1) ->
  cx = fresh_params fvs (s_max st) /\ sub = combine (cids fvs) (cvars cx) /\
  st1 = mksst (s_max st + N.of_nat (List.length fvs)) (s_lifted st) (s_used st).
Proof.
  induction fvs as [|b r IH]; intros st cx sub st1 H; simpl in H.
  - inversion H; subst. simpl. rewrite N.add_0_r. destruct st1; auto.
  - destruct (lift_params r _) as [[cx' sub'] st2] eqn:Hr. inv H.
    apply IH in Hr as [-> [-> ->]]. cbn [s_max s_lifted fresh_params cids cvars map combine List.length]. repeat split.
    f_equal. rewrite Nat2N.inj_succ. lia.
Qed.
Lemma fresh_params_ids : forall fvs m x, In x (cids (fresh_params fvs m)) -> (m < x <= m + N.of_nat (List.length fvs))%N.
Proof.
  induction fvs as [|b r IH]; intros m x Hin; simpl in Hin; [contradiction|].
  cbn [List.length]. rewrite Nat2N.inj_succ. destruct Hin as [<-|Hin]; [unfold cid_id; simpl; lia|].
  apply IH in Hin. lia.
Qed.
Lemma fresh_params_nodup : forall fvs m, NoDup (cids (fresh_params fvs m)).
Proof.
  induction fvs as [|b r IH]; intros m; simpl; constructor; [|apply IH].
  intros Hin. apply fresh_params_ids in Hin. unfold cid_id in Hin. simpl in Hin. lia.
Qed.
Lemma fresh_params_sig : forall fvs m,
  Forall2 (fun p f => fst (cbvar p) = fst (cbvar f) /\ cbchi p = cbchi f /\ cbty p = cbty f) (fresh_params fvs m) fvs.
Proof. induction fvs; intros; simpl; constructor; auto. Qed.
(* the translated signature only depends on chirality and type *)
Lemma shrink_binding_sig : forall codata p f, cbchi p = cbchi f -> cbty p = cbty f ->
  bchi (shrink_binding codata p) = bchi (shrink_binding codata f) /\
  bty (shrink_binding codata p) = bty (shrink_binding codata f).
Proof.
  intros codata [v c t] [v' c' t'] H1 H2. simpl in *. subst. unfold shrink_binding. simpl.
  destruct (cty_eqb t' CI64); destruct (cchi_eqb c' CCns); simpl; auto;
  destruct (_ || _); auto.
Qed.

(* `lift s`: the free variables fvs of s (in BTreeSet order, duplicate-free) are passed by the call,
   in that order; the new definition, pushed to the front of the lifted definitions, has one fresh
   parameter per free variable, in the same order with the same name, chirality and type (hence the
   same AxCut signature as the call's arguments), pairwise distinct; its body is the shrunk statement
   with each free variable renamed to its parameter; its label `lift_<def>_` carries an id drawn
   after the parameters whose PRINTED form differs from that of every label used so far, and is
   recorded as used. *)
Theorem lift_closed : forall rec E s st r st',
  lift rec E s st = SOk (r, st') ->
  let fvs := typed_free_vars s in
  let params := fresh_params fvs (s_max st) in
  bsorted fvs /\ NoDup fvs /\ NoDup (cids params) /\
  Forall2 (fun p f => fst (cbvar p) = fst (cbvar f) /\ cbchi p = cbchi f /\ cbty p = cbty f) params fvs /\
  exists label body st3,
    fst label = ("lift_" ++ e_label E ++ "_")%string /\
    (s_max st + N.of_nat (List.length fvs) < snd label)%N /\
    existsb (fun u => String.eqb (show_cident u) (show_cident label)) (s_used st) = false /\
    r = Call label (shrink_context (e_codata E) fvs) /\
    rec (subst_stmt (combine (cids fvs) (cvars params)) s)
        (mksst (snd label) (s_lifted st) (label :: s_used st)) = SOk (body, st3) /\
    st' = mksst (s_max st3) (mkd label (shrink_context (e_codata E) params) body :: s_lifted st3) (s_used st3).
Proof.
  intros rec E s st r st' H fvs params. unfold lift in H. fold fvs in H.
  destruct (lift_params fvs st) as [[cx sub] st1] eqn:Hp.
  apply lift_params_spec in Hp as [-> [-> ->]]. fold params in H.
  split; [apply typed_free_vars_sorted|]. split; [apply typed_free_vars_nodup|].
  split; [apply fresh_params_nodup|]. split; [apply fresh_params_sig|].
  destruct (fresh_label _ _ _ _) as [[label st2]|] eqn:Hl; [|discriminate].
  apply fresh_label_spec in Hl as [Hbase [Hid [Hlt [Hlift [Hused Hnew]]]]]. cbn [s_max s_lifted s_used] in *.
  rewrite Hlift, Hused, <- Hid in H.
  destruct (rec _ _) as [[body st3]|] eqn:Hb; [|discriminate]. cbn [sbind] in H. inv H.
  exists label, body, st3. repeat split; auto. now rewrite Hid.
Qed.

(* the arms of FsCut::shrink that take a cut in either orientation, as equations *)
Lemma shrink_rename_eq : forall rec E p ty k c v s t c' x t' st,
  cut_of p k (FsMu c v s t) (FsXVar c' x t') ->
  shrink_step rec E (FsCut p ty k) st = rec (subst_stmt [(cid_id v, x)] s) st.
Proof. intros rec E p ty k c v s t c' x t' st [[-> ->]|[-> ->]]; reflexivity. Qed.
Lemma shrink_known_eq : forall rec E p ty k c x args t c' cls t' st,
  cut_of p k (FsXtor c x args t) (FsXCase c' cls t') ->
  shrink_step rec E (FsCut p ty k) st = shrink_known_cuts rec x (cvars args) cls st.
Proof. intros rec E p ty k c x args t c' cls t' st [[-> ->]|[-> ->]]; reflexivity. Qed.
Lemma shrink_let_eq : forall rec E p ty k c x args t c' v s t' st,
  cut_of p k (FsXtor c x args t) (FsMu c' v s t') ->
  shrink_step rec E (FsCut p ty k) st
  = (dos (next, st1) <- rec s st;
     SOk (Let (shrink_identifier v) (shrink_ty ty) (shrink_identifier x) (shrink_context (e_codata E) args) next, st1)).
Proof. intros rec E p ty k c x args t c' v s t' st [[-> ->]|[-> ->]]; reflexivity. Qed.
Lemma shrink_invoke_eq : forall rec E p ty k c x args t c' v t' st,
  cut_of p k (FsXtor c x args t) (FsXVar c' v t') ->
  shrink_step rec E (FsCut p ty k) st
  = SOk (Invoke (shrink_identifier v) (shrink_identifier x) (shrink_ty ty) (shrink_context (e_codata E) args), st).
Proof. intros rec E p ty k c x args t c' v t' st [[-> ->]|[-> ->]]; reflexivity. Qed.
Lemma shrink_switch_eq : forall rec E p ty k c v t c' cls t' st,
  cut_of p k (FsXVar c v t) (FsXCase c' cls t') ->
  shrink_step rec E (FsCut p ty k) st
  = (dos (cls', st1) <- shrink_clauses rec E cls st; SOk (Switch (shrink_identifier v) (shrink_ty ty) cls', st1)).
Proof. intros rec E p ty k c v t c' cls t' st [[-> ->]|[-> ->]]; reflexivity. Qed.
Lemma shrink_create_eq : forall rec E p ty k c v s t c' cls t' st,
  cut_of p k (FsMu c v s t) (FsXCase c' cls t') ->
  shrink_step rec E (FsCut p ty k) st
  = (dos (cls', st1) <- shrink_clauses rec E cls st; dos (next, st2) <- rec s st1;
     SOk (Create (shrink_identifier v) (shrink_ty ty) None cls' next, st2)).
Proof. intros rec E p ty k c v s t c' cls t' st [[-> ->]|[-> ->]]; reflexivity. Qed.

Lemma sbind_ok : forall {X Y} (m : shres X) (f : X -> shres Y) y,
  sbind m f = SOk y -> exists x, m = SOk x /\ f x = SOk y.
Proof. intros X Y [x|e] f y H; [eauto | discriminate]. Qed.

Section StepCases.
Variable rec : fsstmt -> sst -> shres (stmt * sst).
Variable E : senv.

(* A successful step is one of these.  The statement, the result and the final state are indices, so
   that [destruct] instantiates them; the premises carry the names [destruct] gives them. *)
Inductive step_case (st : sst) : fsstmt -> stmt -> sst -> Prop :=
| SC_rename : forall p ty k c v s t c' x t' r st'
    (Hc : cut_of p k (FsMu c v s t) (FsXVar c' x t'))
    (Hr : rec (subst_stmt [(cid_id v, x)] s) st = SOk (r, st')), step_case st (FsCut p ty k) r st'
| SC_known : forall p ty k c x args t c' cls t' cl r st'
    (Hc : cut_of p k (FsXtor c x args t) (FsXCase c' cls t'))
    (Hf : find (fun c => cident_eqb (clause_xtor c) x) cls = Some cl)
    (Hr : rec (subst_stmt (combine (cids (clause_ctx cl)) (cvars args)) (clause_body cl)) st = SOk (r, st')),
    step_case st (FsCut p ty k) r st'
| SC_unknown : forall c v t ty c' v' t' r st'
    (Hu : shrink_unknown_cuts E v v' ty st = SOk (r, st')),
    step_case st (FsCut (FsXVar c v t) ty (FsXVar c' v' t')) r st'
| SC_critical : forall c v s t ty c' v' s' t' r st'
    (Hp : shrink_critical_pairs rec E v s v' s' ty st = SOk (r, st')),
    step_case st (FsCut (FsMu c v s t) ty (FsMu c' v' s' t')) r st'
| SC_lit_mu : forall l ty c v s t next st'
    (Hr : rec s st = SOk (next, st')),
    step_case st (FsCut (FsLit l) ty (FsMu c v s t)) (Literal l (shrink_identifier v) next) st'
| SC_lit_var : forall l ty c v t x st'
    (Hx : fresh_var st = (x, st')),
    step_case st (FsCut (FsLit l) ty (FsXVar c v t)) (Literal l (shrink_identifier x) (invoke_ret v x)) st'
| SC_op_mu : forall a o b ty c v s t next st'
    (Hr : rec s st = SOk (next, st')),
    step_case st (FsCut (FsOp a o b) ty (FsMu c v s t))
      (Op (shrink_identifier a) (shrink_binop o) (shrink_identifier b) (shrink_identifier v) next) st'
| SC_op_var : forall a o b ty c v t x st'
    (Hx : fresh_var st = (x, st')),
    step_case st (FsCut (FsOp a o b) ty (FsXVar c v t))
      (Op (shrink_identifier a) (shrink_binop o) (shrink_identifier b) (shrink_identifier x) (invoke_ret v x)) st'
| SC_let : forall p ty k c x args t c' v s t' next st'
    (Hc : cut_of p k (FsXtor c x args t) (FsMu c' v s t'))
    (Hr : rec s st = SOk (next, st')),
    step_case st (FsCut p ty k)
      (Let (shrink_identifier v) (shrink_ty ty) (shrink_identifier x) (shrink_context (e_codata E) args) next) st'
| SC_invoke : forall p ty k c x args t c' v t'
    (Hc : cut_of p k (FsXtor c x args t) (FsXVar c' v t')),
    step_case st (FsCut p ty k)
      (Invoke (shrink_identifier v) (shrink_identifier x) (shrink_ty ty) (shrink_context (e_codata E) args)) st
| SC_switch : forall p ty k c v t c' cls t' cls' st'
    (Hc : cut_of p k (FsXVar c v t) (FsXCase c' cls t'))
    (Hcl : shrink_clauses rec E cls st = SOk (cls', st')),
    step_case st (FsCut p ty k) (Switch (shrink_identifier v) (shrink_ty ty) cls') st'
| SC_create : forall p ty k c v s t c' cls t' cls' st1 next st'
    (Hc : cut_of p k (FsMu c v s t) (FsXCase c' cls t'))
    (Hcl : shrink_clauses rec E cls st = SOk (cls', st1))
    (Hr : rec s st1 = SOk (next, st')),
    step_case st (FsCut p ty k) (Create (shrink_identifier v) (shrink_ty ty) None cls' next) st'
| SC_ifc : forall so a b t e t' st1 e' st'
    (Ht : rec t st = SOk (t', st1)) (He : rec e st1 = SOk (e', st')),
    step_case st (FsIfC so a b t e)
      (IfC (shrink_ifsort so) (shrink_identifier a) (option_map shrink_identifier b) t' e') st'
| SC_print : forall nl a n n' st'
    (Hr : rec n st = SOk (n', st')),
    step_case st (FsPrint nl a n) (PrintI64 nl (shrink_identifier a) n') st'
| SC_call : forall f args,
    step_case st (FsCall f args) (Call (shrink_identifier f) (shrink_context (e_codata E) args)) st
| SC_exit : forall v, step_case st (FsExit v) (Exit (shrink_identifier v)) st.

Lemma shrink_step_cases : forall s st r st', shrink_step rec E s st = SOk (r, st') -> step_case st s r st'.
Proof.
  intros s st r st' H. destruct s as [p ty k|so a b t e|nl a nx|f args|v]; cbn [shrink_step] in H.
  - unfold shrink_cut in H.
    destruct p as [c1 v1 t1|l1|a1 o1 b1|c1 v1 s1 t1|c1 x1 args1 t1|c1 cls1 t1];
    destruct k as [c2 v2 t2|l2|a2 o2 b2|c2 v2 s2 t2|c2 x2 args2 t2|c2 cls2 t2]; try discriminate H.
    + (* XVar, XVar *) now apply SC_unknown.
    + (* XVar, Mu *) eapply SC_rename; [right; split; reflexivity | exact H].
    + (* XVar, Xtor *) inv H. eapply SC_invoke. right; split; reflexivity.
    + (* XVar, XCase *) apply sbind_ok in H as ([cls' st1] & Hc & H). inv H.
      eapply SC_switch; [left; split; reflexivity | exact Hc].
    + (* Lit, XVar *) destruct (fresh_var st) as [x st1] eqn:Hx. inv H. now apply SC_lit_var.
    + (* Lit, Mu *) apply sbind_ok in H as ([next st1] & Hr & H). inv H. now apply SC_lit_mu.
    + (* Op, XVar *) destruct (fresh_var st) as [x st1] eqn:Hx. inv H. now apply SC_op_var.
    + (* Op, Mu *) apply sbind_ok in H as ([next st1] & Hr & H). inv H. now apply SC_op_mu.
    + (* Mu, XVar *) eapply SC_rename; [left; split; reflexivity | exact H].
    + (* Mu, Mu *) now apply SC_critical.
    + (* Mu, Xtor *) apply sbind_ok in H as ([next st1] & Hr & H). inv H.
      eapply SC_let; [right; split; reflexivity | exact Hr].
    + (* Mu, XCase *) apply sbind_ok in H as ([cls' st1] & Hc & H). apply sbind_ok in H as ([next st2] & Hr & H). inv H.
      eapply SC_create; [left; split; reflexivity | exact Hc | exact Hr].
    + (* Xtor, XVar *) inv H. eapply SC_invoke. left; split; reflexivity.
    + (* Xtor, Mu *) apply sbind_ok in H as ([next st1] & Hr & H). inv H.
      eapply SC_let; [left; split; reflexivity | exact Hr].
    + (* Xtor, XCase *) unfold shrink_known_cuts in H. destruct (find _ cls2) as [cl|] eqn:Hf; [|discriminate].
      eapply SC_known; [left; split; reflexivity | exact Hf | exact H].
    + (* XCase, XVar *) apply sbind_ok in H as ([cls' st1] & Hc & H). inv H.
      eapply SC_switch; [right; split; reflexivity | exact Hc].
    + (* XCase, Mu *) apply sbind_ok in H as ([cls' st1] & Hc & H). apply sbind_ok in H as ([next st2] & Hr & H). inv H.
      eapply SC_create; [right; split; reflexivity | exact Hc | exact Hr].
    + (* XCase, Xtor *) unfold shrink_known_cuts in H. destruct (find _ cls1) as [cl|] eqn:Hf; [|discriminate].
      eapply SC_known; [right; split; reflexivity | exact Hf | exact H].
  - apply sbind_ok in H as ([t' st1] & H1 & H). apply sbind_ok in H as ([e' st2] & H2 & H). inv H.
    eapply SC_ifc; eassumption.
  - apply sbind_ok in H as ([n' st1] & H1 & H). inv H. now apply SC_print.
  - inv H. apply SC_call.
  - inv H. apply SC_exit.
Qed.

(* the two declared-type orientations of a critical pair are one computation on (keep, expand) *)
Inductive critical_case (st : sst) (vp : cident) (sp : fsstmt) (vc : cident) (sc : fsstmt)
  : cty -> stmt -> sst -> Prop :=
| CC_int : forall body st1 next st'
    (Hc : rec sc st = SOk (body, st1)) (Hp : rec sp st1 = SOk (next, st')),
    critical_case st vp sp vc sc CI64
      (Create (shrink_identifier vp) cont_ty None
              [(shrink_identifier ret_name, [mkb (shrink_identifier vc) Ext I64], body)] next) st'
| CC_decl : forall n xs vk sk ve se shrunk st1 cls st2 next st'
    (Hxs : xtors_of E (CDecl n) n = SOk xs)
    (Hor : (vk, sk, ve, se) = (if is_codata (e_codata E) (CDecl n) then (vc, sc, vp, sp) else (vp, sp, vc, sc)))
    (He : (if Nat.leb (List.length xs) 1 || is_leaf_statement se then rec se st else lift rec E se st) = SOk (shrunk, st1))
    (Hcl : critical_clauses (e_codata E) ve (shrink_ty (CDecl n)) shrunk xs st1 = (cls, st2))
    (Hk : rec sk st2 = SOk (next, st')),
    critical_case st vp sp vc sc (CDecl n)
      (Create (shrink_identifier vk) (Decl (shrink_identifier n)) None cls next) st'.

Lemma critical_cases : forall vp sp vc sc ty st r st',
  shrink_critical_pairs rec E vp sp vc sc ty st = SOk (r, st') -> critical_case st vp sp vc sc ty r st'.
Proof.
  intros vp sp vc sc ty st r st' H. unfold shrink_critical_pairs in H. destruct ty as [|n].
  - apply sbind_ok in H as ([body st1] & H1 & H). apply sbind_ok in H as ([next st2] & H2 & H). inv H.
    eapply CC_int; eassumption.
  - apply sbind_ok in H as (xs & Hxs & H).
    destruct (is_codata (e_codata E) (CDecl n)) eqn:Hcd; cbv beta iota in H;
      apply sbind_ok in H as ([shrunk st1] & He & H);
      destruct (critical_clauses _ _ _ _ _ _) as [cls st2] eqn:Hc;
      apply sbind_ok in H as ([next st3] & Hk & H); inv H;
      eapply CC_decl; try eassumption; rewrite Hcd; reflexivity.
Qed.
End StepCases.

Section StmtInd.
Variable P : stmt -> Prop.
Hypothesis HSub : forall re n, P n -> P (Substitute re n).
Hypothesis HCall : forall l a, P (Call l a).
Hypothesis HLet : forall v t tag a n, P n -> P (Let v t tag a n).
Hypothesis HSwitch : forall v t cls, Forall (fun c => P (snd c)) cls -> P (Switch v t cls).
Hypothesis HCreate : forall v t env cls n, Forall (fun c => P (snd c)) cls -> P n -> P (Create v t env cls n).
Hypothesis HInvoke : forall v tag t a, P (Invoke v tag t a).
Hypothesis HLit : forall z v n, P n -> P (Literal z v n).
Hypothesis HOp : forall a o b v n, P n -> P (Op a o b v n).
Hypothesis HPrint : forall nl v n, P n -> P (PrintI64 nl v n).
Hypothesis HIfC : forall so a b t e, P t -> P e -> P (IfC so a b t e).
Hypothesis HExit : forall v, P (Exit v).
Fixpoint stmt_ind' (s : stmt) : P s :=
  let go := fix go (l : list (ident * ctx * stmt)) : Forall (fun c => P (snd c)) l :=
    match l with
    | [] => Forall_nil _
    | c :: r => Forall_cons c (stmt_ind' (snd c)) (go r)
    end in
  match s with
  | Substitute re n => HSub re n (stmt_ind' n)
  | Call l a => HCall l a
  | Let v t tag a n => HLet v t tag a n (stmt_ind' n)
  | Switch v t cls => HSwitch v t cls (go cls)
  | Create v t env cls n => HCreate v t env cls n (go cls) (stmt_ind' n)
  | Invoke v tag t a => HInvoke v tag t a
  | Literal z v n => HLit z v n (stmt_ind' n)
  | Op a o b v n => HOp a o b v n (stmt_ind' n)
  | PrintI64 nl v n => HPrint nl v n (stmt_ind' n)
  | IfC so a b t e => HIfC so a b t e (stmt_ind' t) (stmt_ind' e)
  | Exit v => HExit v
  end.
End StmtInd.

(* every VARIABLE identifier of an AxCut statement (binders and occurrences; not labels, tags, type
   names) has an id <= m *)
Definition v_le (m : N) (x : ident) : bool := N.leb (idn x) m.
Definition actx_le (m : N) (c : ctx) : bool := forallb (fun b => v_le m (bvar b)) c.
Fixpoint ax_le (m : N) (s : stmt) : bool :=
  let cls_le := fix go (l : list (ident * ctx * stmt)) : bool :=
    match l with
    | [] => true
    | c :: r => actx_le m (snd (fst c)) && ax_le m (snd c) && go r
    end in
  match s with
  | Substitute re n => forallb (fun p => v_le m (bvar (fst p)) && v_le m (snd p)) re && ax_le m n
  | Call _ a => actx_le m a
  | Let v _ _ a n => v_le m v && actx_le m a && ax_le m n
  | Switch v _ cls => v_le m v && cls_le cls
  | Create v _ env cls n =>
      v_le m v && match env with Some e => actx_le m e | None => true end && cls_le cls && ax_le m n
  | Invoke v _ _ a => v_le m v && actx_le m a
  | Literal _ v n => v_le m v && ax_le m n
  | Op a _ b v n => v_le m a && v_le m b && v_le m v && ax_le m n
  | PrintI64 _ v n => v_le m v && ax_le m n
  | IfC _ a b t e => v_le m a && match b with Some b' => v_le m b' | None => true end && ax_le m t && ax_le m e
  | Exit v => v_le m v
  end.
Definition cls_le (m : N) (cls : list (ident * ctx * stmt)) : bool :=
  forallb (fun c => actx_le m (snd (fst c)) && ax_le m (snd c)) cls.
Lemma ax_le_switch : forall m v t cls, ax_le m (Switch v t cls) = v_le m v && cls_le m cls.
Proof. intros. reflexivity. Qed.
Lemma ax_le_create : forall m v t env cls n,
  ax_le m (Create v t env cls n) =
  v_le m v && match env with Some e => actx_le m e | None => true end && cls_le m cls && ax_le m n.
Proof. intros. reflexivity. Qed.
Definition def_le (m : N) (d : def) : bool := actx_le m (dctx d) && ax_le m (dbody d).

Lemma v_le_mono : forall m m' x, (m <= m')%N -> v_le m x = true -> v_le m' x = true.
Proof. unfold v_le. intros. apply N.leb_le. apply N.leb_le in H0. lia. Qed.
Lemma actx_le_mono : forall m m' c, (m <= m')%N -> actx_le m c = true -> actx_le m' c = true.
Proof.
  unfold actx_le. intros m m' c Hm H. rewrite forallb_forall in *. intros b Hb. eapply v_le_mono; eauto.
Qed.
Ltac split_and :=
  repeat match goal with
         | H : _ && _ = true |- _ => apply andb_prop in H as [? ?]
         | |- _ && _ = true => apply andb_true_intro; split
         end.
Lemma cls_le_mono : forall m m' cls, (m <= m')%N ->
  Forall (fun c : ident * ctx * stmt => ax_le m (snd c) = true -> ax_le m' (snd c) = true) cls ->
  cls_le m cls = true -> cls_le m' cls = true.
Proof.
  intros m m' cls Hm HF H. unfold cls_le in *. rewrite forallb_forall in *. rewrite Forall_forall in HF.
  intros c Hc. specialize (H c Hc). split_and; eauto using actx_le_mono.
Qed.
Lemma re_le_mono : forall m m' (re : list (binding * ident)), (m <= m')%N ->
  forallb (fun p => v_le m (bvar (fst p)) && v_le m (snd p)) re = true ->
  forallb (fun p => v_le m' (bvar (fst p)) && v_le m' (snd p)) re = true.
Proof.
  intros m m' re Hm H. rewrite forallb_forall in *. intros p Hp. specialize (H p Hp). split_and; eauto using v_le_mono.
Qed.
Lemma ax_le_mono : forall m m', (m <= m')%N -> forall s, ax_le m s = true -> ax_le m' s = true.
Proof.
  intros m m' Hm. apply (stmt_ind' (fun s => ax_le m s = true -> ax_le m' s = true)); intros; rewrite ?ax_le_switch, ?ax_le_create in *;
    cbn [ax_le] in *.
  - split_and; eauto using re_le_mono.
  - eauto using actx_le_mono.
  - split_and; eauto using v_le_mono, actx_le_mono.
  - split_and; eauto using v_le_mono, cls_le_mono.
  - split_and; eauto using v_le_mono, cls_le_mono. destruct env; eauto using actx_le_mono.
  - split_and; eauto using v_le_mono, actx_le_mono.
  - split_and; eauto using v_le_mono.
  - split_and; eauto using v_le_mono.
  - split_and; eauto using v_le_mono.
  - split_and; eauto using v_le_mono. destruct b; eauto using v_le_mono.
  - eauto using v_le_mono.
Qed.
Lemma def_le_mono : forall m m' d, (m <= m')%N -> def_le m d = true -> def_le m' d = true.
Proof. unfold def_le. intros. split_and; eauto using actx_le_mono, ax_le_mono. Qed.
Lemma defs_le_mono : forall m m' ds, (m <= m')%N -> forallb (def_le m) ds = true -> forallb (def_le m') ds = true.
Proof. intros. rewrite forallb_forall in *. intros d Hd. eapply def_le_mono; eauto. Qed.

(* substitution (AxCut) keeps the bound when the new identifiers obey it *)
Definition asub_le (m : N) (sub : asubst) : Prop := forall o n, In (o, n) sub -> v_le m n = true.
Lemma ax_subst_ident_le : forall m sub x, asub_le m sub -> v_le m x = true -> v_le m (ax_subst_ident sub x) = true.
Proof.
  induction sub as [|[o n] r IH]; intros x Hs Hx; simpl; [exact Hx|].
  destruct (N.eqb o (idn x)); [eapply Hs; now left | apply IH; auto]. intros o' n' Hin. eapply Hs. right. exact Hin.
Qed.
Lemma ax_subst_ctx_le : forall m sub c, asub_le m sub -> actx_le m c = true -> actx_le m (ax_subst_ctx sub c) = true.
Proof.
  intros m sub c Hs H. unfold actx_le, ax_subst_ctx in *. rewrite forallb_forall in *. intros b Hb.
  apply in_map_iff in Hb as [b0 [<- Hb0]]. simpl. apply ax_subst_ident_le; auto.
Qed.
Definition ax_subst_cls (sub : asubst) (cls : list (ident * ctx * stmt)) : list (ident * ctx * stmt) :=
  map (fun c => (fst (fst c), snd (fst c), ax_subst sub (snd c))) cls.
Lemma ax_subst_switch : forall sub v t cls, ax_subst sub (Switch v t cls) = Switch (ax_subst_ident sub v) t (ax_subst_cls sub cls).
Proof.
  intros. simpl. f_equal. induction cls as [|[[x c] b] r IH]; simpl; [reflexivity|]. now rewrite IH.
Qed.
Lemma ax_subst_create : forall sub v t env cls n,
  ax_subst sub (Create v t env cls n) = Create v t (option_map (ax_subst_ctx sub) env) (ax_subst_cls sub cls) (ax_subst sub n).
Proof.
  intros. simpl. f_equal. induction cls as [|[[x c] b] r IH]; simpl; [reflexivity|]. now rewrite IH.
Qed.
Lemma ax_subst_cls_le : forall m sub cls,
  Forall (fun c : ident * ctx * stmt => ax_le m (snd c) = true -> ax_le m (ax_subst sub (snd c)) = true) cls ->
  cls_le m cls = true -> cls_le m (ax_subst_cls sub cls) = true.
Proof.
  intros m sub cls HF H. unfold cls_le, ax_subst_cls in *. rewrite forallb_forall in *. rewrite Forall_forall in HF.
  intros c Hc. apply in_map_iff in Hc as [c0 [<- Hc0]]. simpl. specialize (H c0 Hc0). split_and; auto.
Qed.
Lemma ax_subst_le : forall m sub, asub_le m sub -> forall s, ax_le m s = true -> ax_le m (ax_subst sub s) = true.
Proof.
  intros m sub Hs. apply (stmt_ind' (fun s => ax_le m s = true -> ax_le m (ax_subst sub s) = true)); intros;
    rewrite ?ax_subst_switch, ?ax_subst_create; rewrite ?ax_le_switch, ?ax_le_create in *;
    cbn [ax_le ax_subst] in *.
  - split_and; auto. rewrite forallb_forall in *. intros p Hp.
    apply in_map_iff in Hp as [p0 [<- Hp0]]. simpl. specialize (H0 p0 Hp0). split_and; auto using ax_subst_ident_le.
  - auto using ax_subst_ctx_le.
  - split_and; auto using ax_subst_ctx_le.
  - split_and; auto using ax_subst_ident_le, ax_subst_cls_le.
  - split_and; auto using ax_subst_cls_le. destruct env; simpl; auto using ax_subst_ctx_le.
  - split_and; auto using ax_subst_ident_le, ax_subst_ctx_le.
  - split_and; auto.
  - split_and; auto using ax_subst_ident_le.
  - split_and; auto using ax_subst_ident_le.
  - split_and; auto using ax_subst_ident_le. destruct b; simpl; auto using ax_subst_ident_le.
  - auto using ax_subst_ident_le.
Qed.

(* Core side: [ib_stmt m] (every variable id <= m) is monotone in m and stable under substitution *)
Lemma id_le_mono : forall m m' x, (m <= m')%N -> id_le m x = true -> id_le m' x = true.
Proof. unfold id_le. intros. apply N.leb_le. apply N.leb_le in H0. lia. Qed.
Lemma ctx_le_mono : forall m m' c, (m <= m')%N -> ctx_le m c = true -> ctx_le m' c = true.
Proof. unfold ctx_le. intros. rewrite forallb_forall in *. intros b Hb. eapply id_le_mono; eauto. Qed.
Definition ib_clauses (m : N) (cls : list fsclause) : bool :=
  forallb (fun c => ctx_le m (clause_ctx c) && ib_stmt m (clause_body c)) cls.
Lemma ib_term_xcase : forall m c cls t, ib_term m (FsXCase c cls t) = ib_clauses m cls.
Proof.
  intros. unfold ib_clauses. cbn. induction cls as [|[c' x ctx b] r IH]; cbn; [reflexivity|]. now rewrite IH.
Qed.
Definition csub_le (m : N) (sub : csubst) : Prop := forall o n, In (o, n) sub -> id_le m n = true.
Lemma subst_ident_le : forall m sub x, csub_le m sub -> id_le m x = true -> id_le m (subst_ident sub x) = true.
Proof.
  induction sub as [|[o n] r IH]; intros x Hs Hx; simpl; [exact Hx|].
  destruct (N.eqb o (cid_id x)); [eapply Hs; now left | apply IH; auto]. intros o' n' Hin. eapply Hs. right. exact Hin.
Qed.
Lemma subst_ctx_le : forall m sub c, csub_le m sub -> ctx_le m c = true -> ctx_le m (subst_ctx sub c) = true.
Proof.
  intros m sub c Hs H. unfold ctx_le, subst_ctx in *. rewrite forallb_forall in *. intros b Hb.
  apply in_map_iff in Hb as [b0 [<- Hb0]]. simpl. apply subst_ident_le; auto.
Qed.
Lemma ib_all : forall m m' sub, (m <= m')%N -> csub_le m' sub ->
  (forall t, ib_term m t = true -> ib_term m' (subst_term sub t) = true) /\
  (forall c, ctx_le m (clause_ctx c) && ib_stmt m (clause_body c) = true ->
             ctx_le m' (clause_ctx (subst_clause sub c)) && ib_stmt m' (clause_body (subst_clause sub c)) = true) /\
  (forall s, ib_stmt m s = true -> ib_stmt m' (subst_stmt sub s) = true).
Proof.
  intros m m' sub Hm Hs. apply fs_mutind; intros; rewrite ?subst_term_xcase, ?ib_term_xcase in *;
    cbn [ib_term ib_stmt subst_term subst_stmt subst_clause clause_ctx clause_body option_map] in *.
  - apply subst_ident_le; eauto using id_le_mono.
  - reflexivity.
  - split_and; apply subst_ident_le; eauto using id_le_mono.
  - split_and; eauto using id_le_mono.
  - apply subst_ctx_le; eauto using ctx_le_mono.
  - unfold ib_clauses, subst_clauses in *.
    rewrite forallb_forall in *. rewrite Forall_forall in H. intros c0 Hc0.
    apply in_map_iff in Hc0 as [c1 [<- Hc1]]. apply H; auto.
  - split_and; eauto using ctx_le_mono.
  - split_and; auto.
  - split_and; auto; try (apply subst_ident_le; eauto using id_le_mono).
    destruct b; simpl; auto. apply subst_ident_le; eauto using id_le_mono.
  - split_and; auto. apply subst_ident_le; eauto using id_le_mono.
  - apply subst_ctx_le; eauto using ctx_le_mono.
  - apply subst_ident_le; eauto using id_le_mono.
Qed.
Lemma ib_stmt_subst : forall m m' sub s, (m <= m')%N -> csub_le m' sub -> ib_stmt m s = true -> ib_stmt m' (subst_stmt sub s) = true.
Proof. intros. eapply ib_all; eauto. Qed.
Lemma subst_stmt_nil_ident : forall x, subst_ident [] x = x.
Proof. reflexivity. Qed.
Lemma ib_stmt_mono : forall m m' s, (m <= m')%N -> ib_stmt m s = true -> ib_stmt m' s = true.
Proof.
  intros m m' s Hm H.
  assert (Hn : (forall t, subst_term [] t = t) /\ (forall c, subst_clause [] c = c) /\ (forall s, subst_stmt [] s = s)).
  { apply fs_mutind; intros; simpl; try congruence.
    - f_equal. unfold subst_ctx. rewrite <- (map_id args) at 2. apply map_ext. intros [v c0 t0]; reflexivity.
    - f_equal. induction H0 as [|y r Hy Hr IH]; [reflexivity|]. now rewrite Hy, IH.
    - destruct b; simpl; congruence.
    - f_equal. unfold subst_ctx. rewrite <- (map_id args) at 2. apply map_ext. intros [v c0 t0]; reflexivity. }
  destruct Hn as [_ [_ Hn]]. rewrite <- (Hn s). eapply ib_stmt_subst; eauto. intros o n [].
Qed.

Lemma shrink_binding_var : forall codata b, bvar (shrink_binding codata b) = cbvar b.
Proof.
  intros codata [v c t]. unfold shrink_binding. simpl.
  destruct (cty_eqb t CI64); destruct (cchi_eqb c CCns); simpl; auto; destruct (_ || _); auto.
Qed.
Lemma shrink_context_le : forall m codata c, ctx_le m c = true -> actx_le m (shrink_context codata c) = true.
Proof.
  intros m codata c H. unfold ctx_le, actx_le, shrink_context in *. rewrite forallb_forall in *.
  intros b Hb. apply in_map_iff in Hb as [b0 [<- Hb0]]. rewrite shrink_binding_var. apply (H b0 Hb0).
Qed.
Lemma fresh_env_spec : forall bs st env st1, fresh_env bs st = (env, st1) ->
  (s_max st <= s_max st1)%N /\ s_lifted st1 = s_lifted st /\ actx_le (s_max st1) env = true.
Proof.
  induction bs as [|b r IH]; intros st env st1 H; simpl in H.
  - inv H. repeat split; auto. lia.
  - destruct (fresh_env r _) as [r' st2] eqn:Hr. inv H. apply IH in Hr as [Hm [Hl Hle]]. simpl in *.
    repeat split; auto; [lia|]. split_and; auto. unfold v_le. simpl. apply N.leb_le. lia.
Qed.

Lemma unknown_clauses_spec : forall codata ve tty xs st cls st',
  unknown_clauses codata ve tty xs st = (cls, st') -> v_le (s_max st) ve = true ->
  (s_max st <= s_max st')%N /\ s_lifted st' = s_lifted st /\ cls_le (s_max st') cls = true.
Proof.
  induction xs as [|[xt args] r IH]; intros st cls st' H Hv; simpl in H.
  - inv H. repeat split; auto. lia.
  - destruct (fresh_env _ st) as [env st1] eqn:He. destruct (unknown_clauses _ _ _ r st1) as [r' st2] eqn:Hr. inv H.
    apply fresh_env_spec in He as [Hm1 [Hl1 Hle1]].
    apply IH in Hr as [Hm2 [Hl2 Hle2]]; [|eapply v_le_mono; eauto].
    repeat split; [lia | congruence |]. unfold cls_le in *. simpl. split_and; auto.
    + eapply actx_le_mono; eauto.
    + eapply v_le_mono; [|exact Hv]. lia.
    + eapply actx_le_mono; eauto.
Qed.

Lemma critical_clauses_spec : forall codata ve tty se xs st cls st',
  critical_clauses codata ve tty se xs st = (cls, st') -> ax_le (s_max st) se = true ->
  (s_max st <= s_max st')%N /\ s_lifted st' = s_lifted st /\ cls_le (s_max st') cls = true.
Proof.
  induction xs as [|[xt args] r IH]; intros st cls st' H Hse; simpl in H.
  - inv H. repeat split; auto. lia.
  - destruct (fresh_env _ st) as [env sta] eqn:He.
    destruct (critical_clauses _ _ _ _ r _) as [r' stc] eqn:Hr. inv H.
    apply fresh_env_spec in He as [Hm1 [Hl1 Hle1]].
    apply IH in Hr as [Hm2 [Hl2 Hle2]]; [|eapply ax_le_mono; [|exact Hse]; simpl; lia].
    simpl in *. repeat split; [lia | congruence |]. unfold cls_le in *. simpl. split_and; auto.
    + apply actx_le_mono with (m := s_max sta); [lia | exact Hle1].
    + unfold v_le. simpl. apply N.leb_le. lia.
    + apply actx_le_mono with (m := s_max sta); [lia | exact Hle1].
    + apply ax_subst_le.
      * intros o n [Heq|[]]. inv Heq. unfold v_le. simpl. apply N.leb_le. lia.
      * eapply ax_le_mono; [|exact Hse]. lia.
Qed.

Definition ids_pre (st : sst) (s : fsstmt) : Prop :=
  ib_stmt (s_max st) s = true /\ forallb (def_le (s_max st)) (s_lifted st) = true.
Definition ids_post (st : sst) (r : stmt) (st' : sst) : Prop :=
  (s_max st <= s_max st')%N /\ ax_le (s_max st') r = true /\ forallb (def_le (s_max st')) (s_lifted st') = true.

Lemma ids_pre_weaken : forall st st0 s r0,
  ids_post st0 r0 st -> ib_stmt (s_max st0) s = true -> ids_pre st s.
Proof. intros st st0 s r0 [Hm [_ Hl]] Hs. split; [eapply ib_stmt_mono; eauto | exact Hl]. Qed.

Section IdsStep.
Variable rec : fsstmt -> sst -> shres (stmt * sst).
Variable E : senv.
Hypothesis Hrec : forall s st r st', rec s st = SOk (r, st') -> ids_pre st s -> ids_post st r st'.

Lemma shrink_clauses_ids : forall cls st r st',
  shrink_clauses rec E cls st = SOk (r, st') ->
  ib_clauses (s_max st) cls = true -> forallb (def_le (s_max st)) (s_lifted st) = true ->
  (s_max st <= s_max st')%N /\ cls_le (s_max st') r = true /\ forallb (def_le (s_max st')) (s_lifted st') = true.
Proof.
  induction cls as [|[c x ctx b] rr IH]; intros st r st' H Hib Hl; simpl in H.
  - inv H. repeat split; auto. lia.
  - destruct (rec b st) as [[b' st1]|] eqn:Hb; [|discriminate]. cbn [sbind] in H.
    destruct (shrink_clauses rec E rr st1) as [[r' st2]|] eqn:Hr; [|discriminate]. cbn [sbind] in H. inv H.
    unfold ib_clauses in Hib. simpl in Hib. split_and.
    apply Hrec in Hb as [Hm1 [Hle1 Hl1]]; [|split; auto].
    apply IH in Hr as [Hm2 [Hle2 Hl2]]; auto.
    + repeat split; [lia | | auto]. unfold cls_le in *. simpl. split_and; auto.
      * apply shrink_context_le. eapply ctx_le_mono; [|eauto]. lia.
      * eapply ax_le_mono; eauto.
    + unfold ib_clauses. rewrite forallb_forall in *. intros c0 Hc0. specialize (H0 c0 Hc0). split_and.
      * eapply ctx_le_mono; eauto.
      * eapply ib_stmt_mono; eauto.
Qed.

Lemma fresh_params_le : forall fvs m, ctx_le (m + N.of_nat (List.length fvs)) (fresh_params fvs m) = true.
Proof.
  intros fvs m. unfold ctx_le. rewrite forallb_forall. intros b Hb.
  assert (Hin : In (cid_id (cbvar b)) (cids (fresh_params fvs m))) by (unfold cids; now apply in_map with (f := fun b => cid_id (cbvar b))).
  apply fresh_params_ids in Hin. unfold id_le. apply N.leb_le. lia.
Qed.
Lemma combine_sub_le : forall m ids (xs : list cident),
  forallb (id_le m) xs = true -> csub_le m (combine ids xs).
Proof.
  intros m ids xs H o n Hin. apply in_combine_r in Hin. rewrite forallb_forall in H. now apply H.
Qed.
Lemma ctx_le_vars : forall m c, ctx_le m c = true -> forallb (id_le m) (cvars c) = true.
Proof. intros. unfold ctx_le, cvars in *. rewrite forallb_forall in *. intros x Hx. apply in_map_iff in Hx as [b [<- Hb]]. now apply H. Qed.

(* the free variables of a statement are among its variables *)
Lemma bs_insert_in : forall b x l, In x (bs_insert b l) -> x = b \/ In x l.
Proof.
  induction l as [|y r IH]; simpl; intros H.
  - destruct H as [<-|[]]; auto.
  - destruct (cbinding_compare b y); simpl in H; auto.
    + destruct H as [<-|H]; auto.
    + destruct H as [<-|H]; auto. apply IH in H as [->|H]; auto.
Qed.
Lemma bs_remove_in : forall b x l, In x (bs_remove b l) -> In x l.
Proof.
  induction l as [|y r IH]; simpl; intros H; auto.
  destruct (cbinding_compare b y); simpl in *; auto. destruct H; auto.
Qed.
Lemma bs_extend_in : forall bs x l, In x (bs_extend bs l) -> In x bs \/ In x l.
Proof.
  induction bs as [|b r IH]; simpl; intros x l H; auto.
  apply IH in H as [H|H]; auto. apply bs_insert_in in H as [->|H]; auto.
Qed.
Lemma bs_remove_all_in : forall bs x l, In x (bs_remove_all bs l) -> In x l.
Proof. induction bs as [|b r IH]; simpl; intros x l H; auto. apply IH in H. eapply bs_remove_in; eauto. Qed.
Definition bset_le (m : N) (l : bset) : Prop := forall b, In b l -> id_le m (cbvar b) = true.
Lemma tfv_le_all : forall m,
  (forall t acc, ib_term m t = true -> bset_le m acc -> bset_le m (tfv_term t acc)) /\
  (forall c acc, ctx_le m (clause_ctx c) && ib_stmt m (clause_body c) = true -> bset_le m acc -> bset_le m (tfv_clause c acc)) /\
  (forall s acc, ib_stmt m s = true -> bset_le m acc -> bset_le m (tfv_stmt s acc)).
Proof.
  intros m. apply fs_mutind; intros; rewrite ?ib_term_xcase in *;
    cbn [ib_term ib_stmt tfv_term tfv_stmt tfv_clause clause_ctx clause_body] in *; split_and.
  - intros z Hz. apply bs_insert_in in Hz as [->|Hz]; auto.
  - auto.
  - intros z Hz. apply bs_insert_in in Hz as [->|Hz]; auto. apply bs_insert_in in Hz as [->|Hz]; auto.
  - intros z Hz. apply bs_remove_in in Hz. eapply H; eauto.
  - intros z Hz. apply bs_extend_in in Hz as [Hz|Hz]; auto. unfold ctx_le in H. rewrite forallb_forall in H. auto.
  - unfold ib_clauses in H0. revert acc H1. induction H as [|cl r Hcl Hr IH]; intros acc Hacc; auto.
    simpl in H0. split_and. apply IH; auto. apply Hcl; auto. split_and; auto.
  - intros z Hz. apply bs_remove_all_in in Hz. eapply H; eauto.
  - apply H0; auto.
  - apply H0; auto. apply H; auto.
    assert (Ha : bset_le m (bs_insert (i64_prd a) acc)).
    { intros z Hz. apply bs_insert_in in Hz as [->|Hz]; auto. }
    destruct b; auto. intros z Hz. apply bs_insert_in in Hz as [->|Hz]; auto.
  - apply H; auto. intros z Hz. apply bs_insert_in in Hz as [->|Hz]; auto.
  - intros z Hz. apply bs_extend_in in Hz as [Hz|Hz]; auto. unfold ctx_le in H. rewrite forallb_forall in H. auto.
  - intros z Hz. apply bs_insert_in in Hz as [->|Hz]; auto.
Qed.
Lemma typed_free_vars_le : forall m s, ib_stmt m s = true -> ctx_le m (typed_free_vars s) = true.
Proof.
  intros m s H. unfold ctx_le. rewrite forallb_forall. intros b Hb.
  eapply (proj2 (proj2 (tfv_le_all m))); eauto. intros x [].
Qed.

Lemma lift_ids : forall s st r st', lift rec E s st = SOk (r, st') -> ids_pre st s -> ids_post st r st'.
Proof.
  intros s st r st' H [Hib Hl]. apply lift_closed in H.
  destruct H as [_ [_ [_ [_ [label [body [st3 [_ [Hlab [_ [-> [Hb ->]]]]]]]]]]]].
  set (fvs := typed_free_vars s) in *. set (m1 := snd label) in *.
  assert (Hp : ctx_le m1 (fresh_params fvs (s_max st)) = true).
  { eapply ctx_le_mono; [|apply fresh_params_le]. unfold m1. lia. }
  apply Hrec in Hb as [Hm [Hle Hl3]].
  - unfold ids_post. cbn [s_max s_lifted] in *. repeat split.
    + unfold m1 in Hm. lia.
    + cbn [ax_le]. apply shrink_context_le. eapply ctx_le_mono; [|apply typed_free_vars_le; exact Hib]. unfold m1 in Hm. lia.
    + cbn [forallb]. split_and; auto. unfold def_le. cbn [dctx dbody]. split_and; auto.
      apply shrink_context_le. eapply ctx_le_mono; eauto.
  - unfold ids_pre. split; cbn [s_max s_lifted].
    + eapply ib_stmt_subst; [|apply combine_sub_le; apply ctx_le_vars; exact Hp|exact Hib]. unfold m1. lia.
    + eapply defs_le_mono; [|exact Hl]. unfold m1. lia.
Qed.
End IdsStep.

Lemma ib_stmt_cut : forall m p ty k, ib_stmt m (FsCut p ty k) = ib_term m p && ib_term m k.
Proof. reflexivity. Qed.
Lemma ib_stmt_ifc : forall m so a b t e, ib_stmt m (FsIfC so a b t e) =
  id_le m a && match b with Some b' => id_le m b' | None => true end && ib_stmt m t && ib_stmt m e.
Proof. reflexivity. Qed.
Lemma ib_stmt_print : forall m nl a n, ib_stmt m (FsPrint nl a n) = id_le m a && ib_stmt m n.
Proof. reflexivity. Qed.
Lemma ib_term_mu : forall m c v s t, ib_term m (FsMu c v s t) = id_le m v && ib_stmt m s.
Proof. reflexivity. Qed.
Lemma ib_term_xvar : forall m c v t, ib_term m (FsXVar c v t) = id_le m v.
Proof. reflexivity. Qed.
Lemma ib_term_op : forall m a o b, ib_term m (FsOp a o b) = id_le m a && id_le m b.
Proof. reflexivity. Qed.
Lemma ib_term_xtor : forall m c x args t, ib_term m (FsXtor c x args t) = ctx_le m args.
Proof. reflexivity. Qed.

Lemma ib_cut_of : forall m p ty k a b, cut_of p k a b -> ib_stmt m (FsCut p ty k) = true ->
  ib_term m a = true /\ ib_term m b = true.
Proof.
  intros m p ty k a b Hc H. rewrite ib_stmt_cut in H. apply andb_prop in H as [Hp Hk].
  exact (cut_of_both (fun t => ib_term m t = true) _ _ _ _ Hc Hp Hk).
Qed.

Lemma cls_le_weaken : forall m m' cls, (m <= m')%N -> cls_le m cls = true -> cls_le m' cls = true.
Proof.
  intros m m' cls Hm. apply cls_le_mono; [exact Hm|]. apply Forall_forall. intros c _. now apply ax_le_mono.
Qed.

Lemma ib_sided : forall m s p ty k a b, sided s p k a b -> ib_stmt m (FsCut p ty k) = true ->
  ib_term m a = true /\ ib_term m b = true.
Proof. intros m s p ty k a b Hor. apply ib_cut_of. eapply sided_cut_of; eauto. Qed.

Section IdsStep2.
Variable rec : fsstmt -> sst -> shres (stmt * sst).
Variable E : senv.
Hypothesis Hrec : forall s st r st', rec s st = SOk (r, st') -> ids_pre st s -> ids_post st r st'.

Lemma v_le_id_le : forall m x, id_le m x = true -> v_le m x = true.
Proof. intros. exact H. Qed.

Lemma critical_ids : forall vp sp vc sc ty st r st',
  shrink_critical_pairs rec E vp sp vc sc ty st = SOk (r, st') ->
  id_le (s_max st) vp = true -> id_le (s_max st) vc = true ->
  ib_stmt (s_max st) sp = true -> ib_stmt (s_max st) sc = true ->
  forallb (def_le (s_max st)) (s_lifted st) = true -> ids_post st r st'.
Proof.
  intros vp sp vc sc ty st r st' H Hvp Hvc Hsp Hsc Hl. apply critical_cases in H. destruct H.
  - apply Hrec in Hc as [Hm1 [Hle1 Hl1]]; [|split; auto].
    apply Hrec in Hp as [Hm2 [Hle2 Hl2]]; [|split; auto; eapply ib_stmt_mono; eauto].
    unfold ids_post. repeat split; [lia | | auto].
    rewrite ax_le_create. unfold cls_le. cbn [forallb actx_le fst snd bvar]. split_and; auto.
    + eapply v_le_mono; [|exact Hvp]. lia.
    + eapply v_le_mono; [|exact Hvc]. lia.
    + eapply ax_le_mono; eauto.
  - assert (Hsides : id_le (s_max st) vk = true /\ ib_stmt (s_max st) sk = true /\
                     id_le (s_max st) ve = true /\ ib_stmt (s_max st) se = true).
    { destruct (is_codata _ _); injection Hor as -> -> -> ->; auto. }
    destruct Hsides as (Hvk & Hsk & Hve & Hse).
    assert (Hpost1 : ids_post st shrunk st1).
    { destruct (_ || _); [eapply Hrec; [exact He|] | eapply lift_ids; [exact Hrec | exact He |]]; split; auto. }
    destruct Hpost1 as [Hm1 [Hle1 Hl1]].
    apply critical_clauses_spec in Hcl as [Hm2 [Hl2 Hle2]]; auto.
    apply Hrec in Hk as [Hm3 [Hle3 Hl3]].
    + unfold ids_post. repeat split; [lia | | auto]. rewrite ax_le_create. split_and; auto.
      * eapply v_le_mono; [|exact Hvk]. lia.
      * eapply cls_le_weaken; eauto.
    + split; [eapply ib_stmt_mono; [|exact Hsk]; lia|]. rewrite Hl2. eapply defs_le_mono; eauto.
Qed.

Lemma unknown_ids : forall vp vc ty st r st',
  shrink_unknown_cuts E vp vc ty st = SOk (r, st') ->
  id_le (s_max st) vp = true -> id_le (s_max st) vc = true ->
  forallb (def_le (s_max st)) (s_lifted st) = true -> ids_post st r st'.
Proof.
  intros vp vc ty st r st' H Hvp Hvc Hl. unfold shrink_unknown_cuts in H. destruct ty as [|n].
  - inv H. unfold ids_post, invoke_ret. cbn [ax_le actx_le forallb bvar]. repeat split; auto; [lia|]. split_and; auto.
  - destruct (xtors_of E (CDecl n) n) as [xs|]; [|discriminate]. cbn [sbind] in H.
    destruct (is_codata (e_codata E) (CDecl n)); cbv beta iota in H;
      destruct (unknown_clauses _ _ _ _ _) as [cls st1] eqn:Hc; inv H;
      apply unknown_clauses_spec in Hc as [Hm [Hl1 Hle]]; auto;
      (unfold ids_post; repeat split; [lia | | rewrite Hl1; eapply defs_le_mono; eauto]);
      rewrite ax_le_switch; split_and; auto; eapply v_le_mono; eauto.
Qed.

Lemma shrink_step_ids : forall s st r st', shrink_step rec E s st = SOk (r, st') -> ids_pre st s -> ids_post st r st'.
Proof.
  intros s0 st r0 st0 H [Hib Hl]. apply shrink_step_cases in H.
  destruct H; try (apply (ib_cut_of _ _ _ _ _ _ Hc) in Hib as [Ha Hb]);
    rewrite ?ib_stmt_cut, ?ib_stmt_ifc, ?ib_stmt_print, ?ib_term_xcase, ?ib_term_mu, ?ib_term_xvar, ?ib_term_op, ?ib_term_xtor in *;
    split_and.
  - (* rename *) apply Hrec in Hr; auto. split; auto.
    eapply ib_stmt_subst; [apply N.le_refl | | eauto]. intros o n [Heq|[]]. now inv Heq.
  - (* known *) apply find_some in Hf as [Hin _].
    unfold ib_clauses in Hb. rewrite forallb_forall in Hb. specialize (Hb cl Hin). split_and.
    apply Hrec in Hr; auto. split; auto.
    eapply ib_stmt_subst; [apply N.le_refl | apply combine_sub_le; now apply ctx_le_vars | auto].
  - (* unknown *) eapply unknown_ids; eauto.
  - (* critical *) eapply critical_ids; eauto.
  - (* literal, mu~ *)
    apply Hrec in Hr as [Hm [Hle Hl1]]; [|split; auto]. unfold ids_post. cbn [ax_le]. repeat split; auto. split_and; auto. eapply v_le_mono; eauto.
  - (* literal, covariable *) unfold fresh_var, fresh_identifier in Hx. inv Hx. unfold ids_post, invoke_ret. cbn [s_max s_lifted ax_le actx_le forallb bvar].
    repeat split; [lia | | eapply defs_le_mono; [|eauto]; lia].
    split_and; auto; try (unfold v_le; simpl; apply N.leb_le; lia). eapply v_le_mono; [|eassumption]. lia.
  - (* operation, mu~ *)
    apply Hrec in Hr as [Hm [Hle Hl1]]; [|split; auto]. unfold ids_post. cbn [ax_le]. repeat split; auto.
    split_and; auto; eapply v_le_mono; eauto.
  - (* operation, covariable *) unfold fresh_var, fresh_identifier in Hx. inv Hx. unfold ids_post, invoke_ret. cbn [s_max s_lifted ax_le actx_le forallb bvar].
    repeat split; [lia | | eapply defs_le_mono; [|eauto]; lia].
    split_and; auto; try (unfold v_le; simpl; apply N.leb_le; lia); (eapply v_le_mono; [|eassumption]; lia).
  - (* let *)
    apply Hrec in Hr as [Hm [Hle Hl1]]; [|split; auto]. unfold ids_post. cbn [ax_le]. repeat split; auto.
    split_and; auto; [eapply v_le_mono; eauto | apply shrink_context_le; eapply ctx_le_mono; eauto].
  - (* invoke *) unfold ids_post. cbn [ax_le]. repeat split; auto; [lia|]. split_and; auto using shrink_context_le.
  - (* switch *)
    eapply shrink_clauses_ids in Hcl as [Hm [Hle Hl1]]; eauto.
    unfold ids_post. rewrite ax_le_switch. repeat split; auto. split_and; auto. eapply v_le_mono; eauto.
  - (* create *)
    eapply shrink_clauses_ids in Hcl as [Hm1 [Hle1 Hl1]]; eauto.
    apply Hrec in Hr as [Hm2 [Hle2 Hl2]]; [|split; auto; eapply ib_stmt_mono; eauto].
    unfold ids_post. rewrite ax_le_create. repeat split; auto; [lia|]. split_and; auto.
    + eapply v_le_mono; [|eassumption]. lia.
    + eapply cls_le_weaken; eauto.
  - (* ifc *)
    apply Hrec in Ht as [Hm1 [Hle1 Hl1]]; [|split; auto].
    apply Hrec in He as [Hm2 [Hle2 Hl2]]; [|split; auto; eapply ib_stmt_mono; eauto].
    unfold ids_post. cbn [ax_le]. repeat split; auto; [lia|]. split_and; auto.
    + eapply v_le_mono; [|eassumption]. lia.
    + destruct b; simpl; auto. eapply v_le_mono; [|eassumption]. lia.
    + eapply ax_le_mono; eauto.
  - (* print *)
    apply Hrec in Hr as [Hm1 [Hle1 Hl1]]; [|split; auto].
    unfold ids_post. cbn [ax_le]. repeat split; auto. split_and; auto. eapply v_le_mono; eauto.
  - unfold ids_post. cbn [ax_le]. repeat split; auto; [lia|]. now apply shrink_context_le.
  - unfold ids_post. cbn [ax_le]. repeat split; auto. lia.
Qed.
End IdsStep2.

Lemma shrink_stmt_ids : forall E fuel s st r st',
  shrink_stmt fuel E s st = SOk (r, st') -> ids_pre st s -> ids_post st r st'.
Proof.
  intros E fuel. induction fuel as [|fuel IH]; intros s st r st' H Hpre; [discriminate|].
  simpl in H. eapply shrink_step_ids; eauto.
Qed.

Lemma shrink_def_ids : forall d data codata used m ds used' m',
  shrink_def d data codata used m = SOk (ds, used', m') ->
  ctx_le m (fsdctx d) = true -> ib_stmt m (fsdbody d) = true ->
  (m <= m')%N /\ forallb (def_le m') ds = true.
Proof.
  intros d data codata used m ds used' m' H Hc Hb. unfold shrink_def in H.
  destruct (shrink_stmt _ _ _ _) as [[body st]|] eqn:Hs; [|discriminate]. cbn [sbind] in H. inv H.
  apply shrink_stmt_ids in Hs as [Hm [Hle Hl]]; [|split; auto]. cbn [s_max] in *.
  split; auto. cbn [forallb]. split_and; auto. unfold def_le. cbn [dctx dbody]. split_and; auto.
  apply shrink_context_le. eapply ctx_le_mono; eauto.
Qed.

Lemma shrink_defs_ids : forall ds data codata used m acc out m',
  shrink_defs ds data codata used m acc = SOk (out, m') ->
  forallb (fun d => ctx_le m (fsdctx d) && ib_stmt m (fsdbody d)) ds = true ->
  forallb (def_le m) acc = true ->
  (m <= m')%N /\ forallb (def_le m') out = true.
Proof.
  induction ds as [|d r IH]; intros data codata used m acc out m' H Hds Hacc; simpl in H.
  - inv H. split; [lia|]. unfold frev. rewrite rev_append_rev, app_nil_r. rewrite forallb_forall in *.
    intros x Hx. apply Hacc. now apply in_rev.
  - destruct (shrink_def d data codata used m) as [[[o u1] m1]|] eqn:Hd; [|discriminate]. cbn [sbind] in H.
    simpl in Hds. split_and. apply shrink_def_ids in Hd as [Hm1 Ho]; auto.
    apply IH in H as [Hm2 Hout].
    + split; [lia | exact Hout].
    + rewrite forallb_forall in *. intros x Hx. specialize (H1 x Hx). split_and; [eapply ctx_le_mono | eapply ib_stmt_mono]; eauto.
    + rewrite rev_append_rev. rewrite forallb_app. split_and.
      * rewrite forallb_forall in *. intros x Hx. apply Ho. now apply in_rev.
      * eapply defs_le_mono; eauto.
Qed.

(* The output's max_id is at least the input's and bounds the id of every variable (binder or
   occurrence, in definitions and lifted definitions, parameters included) of the output. *)
Theorem shrink_ids_bounded : forall p q,
  ids_bounded p = true -> shrink_prog p = SOk q ->
  (fspmax p <= pmax q)%N /\ forallb (def_le (pmax q)) (pdefs q) = true.
Proof.
  intros p q Hb H. unfold shrink_prog in H. destruct (_ || _); [discriminate|].
  destruct (shrink_defs _ _ _ _ _ _) as [[defs m]|] eqn:Hd; [|discriminate]. cbn [sbind] in H. inv H. cbn [pmax pdefs].
  eapply shrink_defs_ids; eauto. unfold ids_bounded in Hb. rewrite forallb_forall in *. intros d Hin.
  specialize (Hb d Hin). split_and; auto.
Qed.

(* binder ids of an AxCut statement (let/create/literal/op variables and clause parameters) and of a
   focused Core statement (mu/mu~ variables and clause parameters), in traversal order *)
Fixpoint binders (s : stmt) : list N :=
  let go := fix go (l : list (ident * ctx * stmt)) : list N :=
    match l with
    | [] => []
    | c :: r => ids (snd (fst c)) ++ binders (snd c) ++ go r
    end in
  match s with
  | Substitute _ n => binders n       (* explicit substitutions do not occur before linearization *)
  | Let v _ _ _ n | Literal _ v n | Op _ _ _ v n => idn v :: binders n
  | Switch _ _ cls => go cls
  | Create v _ _ cls n => idn v :: go cls ++ binders n
  | PrintI64 _ _ n => binders n
  | IfC _ _ _ t e => binders t ++ binders e
  | Call _ _ | Invoke _ _ _ _ | Exit _ => []
  end.
Definition cls_binders (cls : list (ident * ctx * stmt)) : list N :=
  flat_map (fun c => ids (snd (fst c)) ++ binders (snd c)) cls.
Lemma binders_switch : forall v t cls, binders (Switch v t cls) = cls_binders cls.
Proof.
  intros. simpl. unfold cls_binders. induction cls as [|c r IH]; simpl; [reflexivity|]. now rewrite IH, app_assoc.
Qed.
Lemma binders_create : forall v t env cls n, binders (Create v t env cls n) = idn v :: cls_binders cls ++ binders n.
Proof.
  intros. simpl. f_equal. f_equal. unfold cls_binders. induction cls as [|c r IH]; simpl; [reflexivity|]. now rewrite IH, app_assoc.
Qed.
(* the ids a (lifted) definition introduces: the id of its label, its parameters, its binders *)
Definition def_binders (d : def) : list N := idn (dname d) :: ids (dctx d) ++ binders (dbody d).

Fixpoint cbinders_term (t : fsterm) : list N :=
  match t with
  | FsMu _ v s _ => cid_id v :: cbinders s
  | FsXCase _ cls _ =>
      (fix go (l : list fsclause) : list N :=
         match l with [] => [] | FsClause _ _ ctx b :: r => cids ctx ++ cbinders b ++ go r end) cls
  | _ => []
  end
with cbinders (s : fsstmt) : list N :=
  match s with
  | FsCut p _ k => cbinders_term p ++ cbinders_term k
  | FsIfC _ _ _ t e => cbinders t ++ cbinders e
  | FsPrint _ _ n => cbinders n
  | FsCall _ _ | FsExit _ => []
  end.
Definition cbinders_clauses (cls : list fsclause) : list N :=
  flat_map (fun c => cids (clause_ctx c) ++ cbinders (clause_body c)) cls.
Lemma cbinders_term_xcase : forall c cls t, cbinders_term (FsXCase c cls t) = cbinders_clauses cls.
Proof.
  intros. simpl. unfold cbinders_clauses. induction cls as [|[c' x ctx b] r IH]; simpl; [reflexivity|]. now rewrite IH, app_assoc.
Qed.

(* substitutions never touch binders *)
Lemma cbinders_subst_all : forall sub,
  (forall t, cbinders_term (subst_term sub t) = cbinders_term t) /\
  (forall c, cids (clause_ctx (subst_clause sub c)) ++ cbinders (clause_body (subst_clause sub c))
             = cids (clause_ctx c) ++ cbinders (clause_body c)) /\
  (forall s, cbinders (subst_stmt sub s) = cbinders s).
Proof.
  intros sub. apply fs_mutind; intros; try reflexivity.
  - simpl. now rewrite H.
  - rewrite subst_term_xcase, !cbinders_term_xcase. unfold cbinders_clauses, subst_clauses.
    induction H as [|y r Hy Hr IH]; simpl; [reflexivity|]. now rewrite Hy, IH.
  - simpl. now rewrite H.
  - simpl. now rewrite H, H0.
  - simpl. now rewrite H, H0.
  - simpl. now rewrite H.
Qed.
Lemma cbinders_subst : forall sub s, cbinders (subst_stmt sub s) = cbinders s.
Proof. intros. apply (cbinders_subst_all sub). Qed.
Lemma binders_ax_subst : forall sub s, binders (ax_subst sub s) = binders s.
Proof.
  intros sub. apply (stmt_ind' (fun s => binders (ax_subst sub s) = binders s)); intros;
    rewrite ?ax_subst_switch, ?ax_subst_create, ?binders_switch, ?binders_create; try reflexivity.
  - simpl. now rewrite H.
  - simpl. now rewrite H.
  - unfold cls_binders, ax_subst_cls. induction H as [|c r Hc Hr IH]; simpl; [reflexivity|]. now rewrite Hc, IH.
  - rewrite H0. do 2 f_equal. unfold cls_binders, ax_subst_cls. induction H as [|c r Hc Hr IH]; simpl; [reflexivity|]. now rewrite Hc, IH.
  - simpl. now rewrite H.
  - simpl. now rewrite H.
  - simpl. now rewrite H.
  - simpl. now rewrite H, H0.
Qed.

Definition cnt (l : list N) (x : N) : nat := count_occ N.eq_dec l x.
Lemma cnt_app : forall a b x, cnt (a ++ b) x = cnt a x + cnt b x.
Proof. intros. apply count_occ_app. Qed.
Lemma cnt_cons : forall a l x, cnt (a :: l) x = (if N.eq_dec a x then 1 else 0) + cnt l x.
Proof. intros. unfold cnt. simpl. destruct (N.eq_dec a x); reflexivity. Qed.
Lemma cnt_nil : forall x, cnt [] x = 0.
Proof. reflexivity. Qed.
Definition lifted_binders (ds : list def) : list N := flat_map def_binders ds.
Lemma lifted_binders_app : forall a b, lifted_binders (a ++ b) = lifted_binders a ++ lifted_binders b.
Proof. intros. apply flat_map_app. Qed.

Section Fresh.
Variable m0 : N.      (* every binder of the input is <= m0 *)
(* among the ids > m0, each occurs at most once in B and lies in (lo, hi] *)
Definition fresh_cnt (lo hi : N) (B : list N) : Prop :=
  forall x, (m0 < x)%N -> cnt B x <= 1 /\ (0 < cnt B x -> (lo < x <= hi)%N).
Definition old_only (B : list N) : Prop := forall x, (m0 < x)%N -> cnt B x = 0.

Lemma fresh_cnt_nil : forall lo hi, fresh_cnt lo hi [].
Proof. intros lo hi x Hx. rewrite cnt_nil. lia. Qed.
Lemma fresh_cnt_widen : forall lo hi lo' hi' B, fresh_cnt lo hi B -> (lo' <= lo)%N -> (hi <= hi')%N -> fresh_cnt lo' hi' B.
Proof. intros lo hi lo' hi' B H H1 H2 x Hx. specialize (H x Hx). lia. Qed.
Lemma fresh_cnt_old : forall lo hi B, old_only B -> fresh_cnt lo hi B.
Proof. intros lo hi B H x Hx. specialize (H x Hx). lia. Qed.
Lemma old_only_app : forall a b, old_only (a ++ b) <-> old_only a /\ old_only b.
Proof.
  intros a b. split.
  - intros H. split; intros x Hx; specialize (H x Hx); rewrite cnt_app in H; lia.
  - intros [H1 H2] x Hx. rewrite cnt_app, (H1 x Hx), (H2 x Hx). reflexivity.
Qed.
Lemma old_only_cons : forall a l, old_only (a :: l) <-> (a <= m0)%N /\ old_only l.
Proof.
  intros a l. split.
  - intros H. split.
    + destruct (N.le_gt_cases a m0) as [Hle|Hgt]; [exact Hle|]. specialize (H a Hgt). rewrite cnt_cons in H.
      destruct (N.eq_dec a a); [discriminate | congruence].
    + intros x Hx. specialize (H x Hx). rewrite cnt_cons in H. lia.
  - intros [Ha H] x Hx. rewrite cnt_cons, (H x Hx). destruct (N.eq_dec a x); [lia | reflexivity].
Qed.
Lemma old_only_nil : old_only [].
Proof. intros x Hx. reflexivity. Qed.
End Fresh.

(* drawing fresh parameters moves max_id up and leaves the lifted definitions and used labels alone *)
Lemma fresh_env_frame : forall bs st env st1, fresh_env bs st = (env, st1) ->
  (s_max st <= s_max st1)%N /\ s_lifted st1 = s_lifted st /\ s_used st1 = s_used st.
Proof.
  induction bs as [|b r IH]; intros st env st1 H; simpl in H.
  - inv H. repeat split. lia.
  - destruct (fresh_env r _) as [r' st2] eqn:Hr. inv H. apply IH in Hr as (Hm & Hl & Hu). simpl in *.
    repeat split; [lia | exact Hl | exact Hu].
Qed.
Lemma unknown_clauses_frame : forall codata ve tty xs st cls st',
  unknown_clauses codata ve tty xs st = (cls, st') ->
  (s_max st <= s_max st')%N /\ s_lifted st' = s_lifted st /\ s_used st' = s_used st.
Proof.
  induction xs as [|[xt args] r IH]; intros st cls st' H; simpl in H.
  - inv H. repeat split. lia.
  - destruct (fresh_env _ st) as [env st1] eqn:He. destruct (unknown_clauses _ _ _ r st1) as [r' st2] eqn:Hr. inv H.
    apply fresh_env_frame in He as (Hm1 & Hl1 & Hu1). apply IH in Hr as (Hm2 & Hl2 & Hu2).
    repeat split; [lia | congruence | congruence].
Qed.
Lemma critical_clauses_frame : forall codata ve tty se xs st cls st',
  critical_clauses codata ve tty se xs st = (cls, st') ->
  (s_max st <= s_max st')%N /\ s_lifted st' = s_lifted st /\ s_used st' = s_used st.
Proof.
  induction xs as [|[xt args] r IH]; intros st cls st' H; simpl in H.
  - inv H. repeat split. lia.
  - destruct (fresh_env _ st) as [env st1] eqn:He. destruct (critical_clauses _ _ _ _ r _) as [r' st2] eqn:Hr. inv H.
    apply fresh_env_frame in He as (Hm1 & Hl1 & Hu1). apply IH in Hr as (Hm2 & Hl2 & Hu2). simpl in *.
    repeat split; [lia | congruence | congruence].
Qed.

Lemma unknown_cuts_frame : forall E vp vc ty st r st', shrink_unknown_cuts E vp vc ty st = SOk (r, st') ->
  (s_max st <= s_max st')%N /\ s_lifted st' = s_lifted st /\ s_used st' = s_used st.
Proof.
  intros E vp vc ty st r st' H. unfold shrink_unknown_cuts in H. destruct ty as [|n]; [inv H; repeat split; lia|].
  apply sbind_ok in H as (xs & _ & H).
  destruct (is_codata _ _); cbv beta iota in H; destruct (unknown_clauses _ _ _ _ _) as [cls st1] eqn:Hc; inv H;
    eapply unknown_clauses_frame; eauto.
Qed.

(* [grows lo hi old new]: every id occurs in [new] at most as often as in [old], except that an id of
   (lo, hi] may occur once more.  Between the binders of a statement and those of its shrunk form, with
   (lo, hi] the ids drawn meanwhile, this says at once that a drawn id binds at most once and that no
   binder of the input is duplicated. *)
Definition grows (lo hi : N) (old new : list N) : Prop :=
  forall x, cnt new x <= cnt old x + 1 /\ (cnt old x < cnt new x -> (lo < x <= hi)%N).

(* instantiate every [grows] fact at one id, split the counts, compare that id with the ids consed on *)
Ltac grows_solve :=
  let x := fresh "x" in intros x;
  repeat match goal with
         | H : grows _ _ _ _ |- _ => specialize (H x)
         | H : forall y : N, cnt _ y <= cnt _ y |- _ => specialize (H x)
         end;
  repeat (rewrite ?cnt_app, ?cnt_cons, ?cnt_nil in * );
  repeat match goal with
         | |- context [N.eq_dec ?a x] => destruct (N.eq_dec a x); [subst|]
         | H : context [N.eq_dec ?a x] |- _ => destruct (N.eq_dec a x); [subst|]
         end;
  simpl in *; try lia.

Lemma grows_nil : forall lo hi old, grows lo hi old [].
Proof. intros lo hi old. grows_solve. Qed.
Lemma grows_le : forall lo hi old old' new, (forall x, cnt old x <= cnt old' x) -> grows lo hi old new -> grows lo hi old' new.
Proof. intros lo hi old old' new Hle H. grows_solve. Qed.
Lemma grows_fresh_cnt : forall m0 lo hi old B, grows lo hi old B -> old_only m0 old -> fresh_cnt m0 lo hi B.
Proof. intros m0 lo hi old B H Ho x Hx. specialize (H x). specialize (Ho x Hx). lia. Qed.

Lemma fresh_env_grows : forall bs st env st1, fresh_env bs st = (env, st1) -> grows (s_max st) (s_max st1) [] (ids env).
Proof.
  induction bs as [|b r IH]; intros st env st1 H; simpl in H.
  - inv H. apply grows_nil.
  - destruct (fresh_env r _) as [r' st2] eqn:Hr. inv H.
    pose proof (fresh_env_frame _ _ _ _ Hr) as [Hm2 _]. apply IH in Hr. simpl in *.
    change (ids (mkb (shrink_identifier (fst (bvar b), N.succ (s_max st))) (bchi b) (bty b) :: r'))
      with (N.succ (s_max st) :: ids r'). grows_solve.
Qed.

Lemma cls_binders_cons : forall c r, cls_binders (c :: r) = ids (snd (fst c)) ++ binders (snd c) ++ cls_binders r.
Proof. intros. unfold cls_binders. simpl. now rewrite app_assoc. Qed.

Lemma unknown_clauses_grows : forall codata ve tty xs st cls st',
  unknown_clauses codata ve tty xs st = (cls, st') -> grows (s_max st) (s_max st') [] (cls_binders cls).
Proof.
  induction xs as [|[xt args] r IH]; intros st cls st' H; simpl in H.
  - inv H. apply grows_nil.
  - destruct (fresh_env _ st) as [env st1] eqn:He. destruct (unknown_clauses _ _ _ r st1) as [r' st2] eqn:Hr. inv H.
    pose proof (fresh_env_frame _ _ _ _ He) as [Hm1 _]. pose proof (unknown_clauses_frame _ _ _ _ _ _ _ Hr) as [Hm2 _].
    apply fresh_env_grows in He. apply IH in Hr.
    rewrite cls_binders_cons. cbn [fst snd binders app]. grows_solve.
Qed.

(* the clauses of a critical pair contain one copy of the shrunk expanded side per xtor: fine when
   that statement binds nothing (leaf statement or call of its lifted definition) ... *)
Lemma critical_clauses_grows_nil : forall codata ve tty se xs st cls st',
  critical_clauses codata ve tty se xs st = (cls, st') -> binders se = [] ->
  grows (s_max st) (s_max st') [] (cls_binders cls).
Proof.
  induction xs as [|[xt args] r IH]; intros st cls st' H Hse; simpl in H.
  - inv H. apply grows_nil.
  - destruct (fresh_env _ st) as [env st1] eqn:He. destruct (critical_clauses _ _ _ _ r _) as [r' st2] eqn:Hr. inv H.
    pose proof (fresh_env_frame _ _ _ _ He) as [Hm1 _].
    pose proof (critical_clauses_frame _ _ _ _ _ _ _ _ Hr) as [Hm2 _]. simpl in Hm2.
    apply fresh_env_grows in He. apply IH in Hr; auto. simpl in Hr.
    rewrite cls_binders_cons. cbn [fst snd]. cbn [binders]. rewrite binders_ax_subst, Hse. unfold idn. cbn [snd shrink_identifier].
    grows_solve.
Qed.
(* ... or when there is at most one xtor *)
Lemma critical_clauses_grows_one : forall codata ve tty se xs st cls st' lo old extra,
  critical_clauses codata ve tty se xs st = (cls, st') -> (lo <= s_max st)%N ->
  List.length xs <= 1 -> grows lo (s_max st) old (binders se ++ extra) ->
  grows lo (s_max st') old (cls_binders cls ++ extra).
Proof.
  intros codata ve tty se xs st cls st' lo old extra H Hlo Hlen Hse.
  destruct xs as [|[xt args] [|y r]]; simpl in Hlen; try lia; simpl in H.
  - inv H. cbn [cls_binders flat_map app]. grows_solve.
  - destruct (fresh_env _ st) as [env st1] eqn:He. inv H.
    pose proof (fresh_env_frame _ _ _ _ He) as [Hm1 _]. apply fresh_env_grows in He.
    rewrite cls_binders_cons. cbn [fst snd]. cbn [binders]. rewrite binders_ax_subst. unfold idn. cbn [snd shrink_identifier s_max cls_binders flat_map].
    grows_solve.
Qed.

Lemma fresh_params_grows : forall fvs m, grows m (m + N.of_nat (List.length fvs)) [] (cids (fresh_params fvs m)).
Proof.
  induction fvs as [|b r IH]; intros m; cbn [fresh_params cids map List.length].
  - apply grows_nil.
  - specialize (IH (N.succ m)). unfold cid_id at 1. cbn [cbvar snd]. fold (cids (fresh_params r (N.succ m))).
    rewrite Nat2N.inj_succ.
    replace (m + N.succ (N.of_nat (List.length r)))%N with (N.succ m + N.of_nat (List.length r))%N by lia.
    grows_solve.
Qed.
Lemma ids_shrink_context : forall codata c, ids (shrink_context codata c) = cids c.
Proof.
  intros. unfold ids, shrink_context, cids. rewrite map_map. apply map_ext. intros b. now rewrite shrink_binding_var.
Qed.

(* what a run does to max_id, the lifted definitions and the binders; [old] are the binders of the input *)
Definition bpost (st : sst) (old : list N) (r : stmt) (st' : sst) : Prop :=
  (s_max st <= s_max st')%N /\
  exists nd, s_lifted st' = nd ++ s_lifted st /\ grows (s_max st) (s_max st') old (binders r ++ lifted_binders nd).
Lemma bpost_le : forall st old old' r st', (forall x, cnt old x <= cnt old' x) -> bpost st old r st' -> bpost st old' r st'.
Proof. intros st old old' r st' Hle (Hm & nd & Hl & Hg). split; [exact Hm|]. exists nd. split; [exact Hl|]. eapply grows_le; eauto. Qed.
Lemma bpost_nobinders : forall st old r, binders r = [] -> bpost st old r st.
Proof. intros st old r Hb. split; [lia|]. exists []. split; [reflexivity|]. rewrite Hb. apply grows_nil. Qed.
Lemma cut_of_cnt : forall p ty k a b, cut_of p k a b ->
  forall x, cnt (cbinders_term a ++ cbinders_term b) x <= cnt (cbinders (FsCut p ty k)) x.
Proof. intros p ty k a b [[-> ->]|[-> ->]] x; cbn [cbinders]; rewrite !cnt_app; lia. Qed.
Lemma cnt_clause_le : forall cls cl x, In cl cls -> cnt (cbinders (clause_body cl)) x <= cnt (cbinders_clauses cls) x.
Proof.
  induction cls as [|c r IH]; intros cl x Hin; [contradiction|]. unfold cbinders_clauses. cbn [flat_map]. rewrite !cnt_app.
  destruct Hin as [->|Hin]; [lia|]. specialize (IH cl x Hin). unfold cbinders_clauses in IH. lia.
Qed.

Section BinderStep.
Variable rec : fsstmt -> sst -> shres (stmt * sst).
Variable E : senv.
Hypothesis Hrec : forall s st r st', rec s st = SOk (r, st') -> bpost st (cbinders s) r st'.
Hypothesis Hleaf : forall s st r st', rec s st = SOk (r, st') -> is_leaf_statement s = true -> binders r = [].

Lemma shrink_clauses_b : forall cls st r st', shrink_clauses rec E cls st = SOk (r, st') ->
  (s_max st <= s_max st')%N /\
  exists nd, s_lifted st' = nd ++ s_lifted st /\
    grows (s_max st) (s_max st') (cbinders_clauses cls) (cls_binders r ++ lifted_binders nd).
Proof.
  induction cls as [|[c x ctx b] rr IH]; intros st r st' H; simpl in H.
  - inv H. split; [lia|]. exists []. split; [reflexivity|]. apply grows_nil.
  - apply sbind_ok in H as ([b' st1] & Hb & H). apply sbind_ok in H as ([r' st2] & Hr & H). inv H.
    apply Hrec in Hb as (Hm1 & nd1 & Hl1 & Hc1). apply IH in Hr as (Hm2 & nd2 & Hl2 & Hc2).
    split; [lia|]. exists (nd2 ++ nd1). split; [rewrite Hl2, Hl1; now rewrite app_assoc|].
    rewrite cls_binders_cons, lifted_binders_app. cbn [fst snd]. rewrite ids_shrink_context.
    unfold cbinders_clauses. cbn [flat_map clause_ctx clause_body]. fold (cbinders_clauses rr). grows_solve.
Qed.

Lemma lift_b : forall s st r st', lift rec E s st = SOk (r, st') -> bpost st (cbinders s) r st' /\ binders r = [].
Proof.
  intros s st r st' H. apply lift_closed in H.
  destruct H as [_ [_ [_ [_ [label [body [st3 [_ [Hlab [_ [-> [Hb ->]]]]]]]]]]]]. split; [|reflexivity].
  set (fvs := typed_free_vars s) in *.
  apply Hrec in Hb as (Hm3 & nd3 & Hl3 & Hc3). rewrite cbinders_subst in Hc3.
  unfold bpost. cbn [s_max s_lifted] in *. split; [lia|].
  exists (mkd label (shrink_context (e_codata E) (fresh_params fvs (s_max st))) body :: nd3).
  split; [now rewrite Hl3|].
  cbn [binders app lifted_binders flat_map]. unfold def_binders at 1. cbn [dctx dbody dname]. rewrite ids_shrink_context.
  unfold idn at 1. fold (lifted_binders nd3).
  pose proof (fresh_params_grows fvs (s_max st)) as Hp.
  grows_solve.
Qed.

Lemma critical_b : forall vp sp vc sc ty st r st',
  shrink_critical_pairs rec E vp sp vc sc ty st = SOk (r, st') ->
  bpost st (cid_id vp :: cbinders sp ++ cid_id vc :: cbinders sc) r st'.
Proof.
  intros vp sp vc sc ty st r st' H. apply critical_cases in H. destruct H.
  - apply Hrec in Hc as (Hm1 & nd1 & Hl1 & Hc1). apply Hrec in Hp as (Hm2 & nd2 & Hl2 & Hc2).
    split; [lia|]. exists (nd2 ++ nd1). split; [rewrite Hl2, Hl1; now rewrite app_assoc|].
    rewrite binders_create, lifted_binders_app. unfold cls_binders. cbn [flat_map fst snd ids map bvar app].
    unfold idn, shrink_identifier. cbn [snd]. rewrite app_nil_r. unfold cid_id in *. grows_solve.
  - apply bpost_le with (old := cid_id vk :: cbinders sk ++ cbinders se).
    { destruct (is_codata _ _); injection Hor as -> -> -> ->; intros x; rewrite ?cnt_cons, ?cnt_app, ?cnt_cons; lia. }
    pose proof (critical_clauses_frame _ _ _ _ _ _ _ _ Hcl) as (Hm12 & Hl12 & _).
    (* the expanded side and its copies in the clauses *)
    assert (Hcls : (s_max st <= s_max st1)%N /\ exists nd1, s_lifted st1 = nd1 ++ s_lifted st /\
                   grows (s_max st) (s_max st2) (cbinders se) (cls_binders cls ++ lifted_binders nd1)).
    { destruct (Nat.leb (List.length xs) 1) eqn:Hlen; cbn [orb] in He.
      - apply Hrec in He as (Hm1 & nd1 & Hl1 & Hc1). split; [lia|]. exists nd1. split; auto.
        eapply critical_clauses_grows_one; [exact Hcl | lia | now apply Nat.leb_le | exact Hc1].
      - assert (Hpost : bpost st (cbinders se) shrunk st1 /\ binders shrunk = []).
        { destruct (is_leaf_statement se) eqn:Hlf; [split; [eapply Hrec | eapply Hleaf]; eauto | now apply lift_b]. }
        destruct Hpost as [(Hm1 & nd1 & Hl1 & Hc1) Hb0]. split; [lia|]. exists nd1. split; auto.
        rewrite Hb0 in Hc1. cbn [app] in Hc1.
        pose proof (critical_clauses_grows_nil _ _ _ _ _ _ _ _ Hcl Hb0) as Hcn. grows_solve. }
    destruct Hcls as (Hm1 & nd1 & Hl1 & Hc1).
    apply Hrec in Hk as (Hm3 & nd3 & Hl3 & Hc3).
    split; [lia|]. exists (nd3 ++ nd1). split; [rewrite Hl3, Hl12, Hl1; now rewrite app_assoc|].
    rewrite binders_create, lifted_binders_app. unfold idn, shrink_identifier. cbn [snd]. unfold cid_id in *.
    grows_solve.
Qed.

Lemma unknown_b : forall vp vc ty st old r st', shrink_unknown_cuts E vp vc ty st = SOk (r, st') -> bpost st old r st'.
Proof.
  intros vp vc ty st old r st' H. unfold shrink_unknown_cuts in H. destruct ty as [|n].
  - inv H. now apply bpost_nobinders.
  - apply sbind_ok in H as (xs & _ & H).
    destruct (is_codata (e_codata E) (CDecl n)); cbv beta iota in H;
      destruct (unknown_clauses _ _ _ _ _) as [cls st1] eqn:Hc; inv H;
      pose proof (unknown_clauses_frame _ _ _ _ _ _ _ Hc) as (Hm1 & Hl1 & _);
      apply unknown_clauses_grows in Hc;
      (split; [lia|]; exists []; split; [now rewrite Hl1|]; rewrite binders_switch; cbn [lifted_binders flat_map]; rewrite app_nil_r;
       eapply grows_le; [|exact Hc]; intros x; rewrite cnt_nil; lia).
Qed.

Lemma shrink_step_b : forall s st r st', shrink_step rec E s st = SOk (r, st') -> bpost st (cbinders s) r st'.
Proof.
  intros s0 st r0 st0 H. apply shrink_step_cases in H.
  destruct H; try (eapply bpost_le; [exact (cut_of_cnt _ ty _ _ _ Hc)|]);
    rewrite ?cbinders_term_xcase; cbn [cbinders_term cbinders app].
  - (* rename *) apply Hrec in Hr. rewrite cbinders_subst in Hr. eapply bpost_le; [|exact Hr]. intros y. rewrite app_nil_r, cnt_cons. lia.
  - (* known *) apply find_some in Hf as [Hin _]. apply Hrec in Hr. rewrite cbinders_subst in Hr.
    eapply bpost_le; [|exact Hr]. intros y. now apply cnt_clause_le.
  - (* unknown *) eapply unknown_b; eauto.
  - (* critical *) eapply critical_b; eauto.
  - (* literal, mu~ *) apply Hrec in Hr as (Hm1 & nd & Hl & Hcn). split; auto. exists nd. split; auto.
    cbn [binders]. unfold idn, shrink_identifier, cid_id in *. grows_solve.
  - (* literal, covariable *) unfold fresh_var, fresh_identifier in Hx. inv Hx. split; [cbn [s_max]; lia|]. exists []. split; [reflexivity|].
    cbn [binders invoke_ret app lifted_binders flat_map s_max]. unfold idn, shrink_identifier. cbn [snd]. grows_solve.
  - (* operation, mu~ *) apply Hrec in Hr as (Hm1 & nd & Hl & Hcn). split; auto. exists nd. split; auto.
    cbn [binders]. unfold idn, shrink_identifier, cid_id in *. grows_solve.
  - (* operation, covariable *) unfold fresh_var, fresh_identifier in Hx. inv Hx. split; [cbn [s_max]; lia|]. exists []. split; [reflexivity|].
    cbn [binders invoke_ret app lifted_binders flat_map s_max]. unfold idn, shrink_identifier. cbn [snd]. grows_solve.
  - (* let *) apply Hrec in Hr as (Hm1 & nd & Hl & Hcn). split; auto. exists nd. split; auto.
    cbn [binders]. unfold idn, shrink_identifier, cid_id in *. grows_solve.
  - (* invoke *) now apply bpost_nobinders.
  - (* switch *) apply shrink_clauses_b in Hcl as (Hm1 & nd & Hl & Hcn). split; auto. exists nd. split; auto. now rewrite binders_switch.
  - (* create *) apply shrink_clauses_b in Hcl as (Hm1 & nd1 & Hl1 & Hc1). apply Hrec in Hr as (Hm2 & nd2 & Hl2 & Hc2).
    split; [lia|]. exists (nd2 ++ nd1). split; [rewrite Hl2, Hl1; now rewrite app_assoc|].
    rewrite binders_create, lifted_binders_app. unfold idn, shrink_identifier, cid_id in *. grows_solve.
  - (* ifc *) apply Hrec in Ht as (Hm1 & nd1 & Hl1 & Hc1). apply Hrec in He as (Hm2 & nd2 & Hl2 & Hc2).
    split; [lia|]. exists (nd2 ++ nd1). split; [rewrite Hl2, Hl1; now rewrite app_assoc|].
    cbn [binders]. rewrite lifted_binders_app. grows_solve.
  - (* print *) exact (Hrec _ _ _ _ Hr).
  - now apply bpost_nobinders.
  - now apply bpost_nobinders.
Qed.
End BinderStep.

Lemma shrink_step_leaf : forall rec E s st r st',
  shrink_step rec E s st = SOk (r, st') -> is_leaf_statement s = true -> binders r = [].
Proof.
  intros rec E s st r st' H Hl. destruct s as [p ty k|so a b t e|nl a nx|f args|v]; try discriminate Hl.
  - destruct p; try discriminate Hl; destruct k; try discriminate Hl; simpl in H; inv H; reflexivity.
  - simpl in H. inv H. reflexivity.
  - simpl in H. inv H. reflexivity.
Qed.

Lemma shrink_stmt_leaf : forall E fuel s st r st',
  shrink_stmt fuel E s st = SOk (r, st') -> is_leaf_statement s = true -> binders r = [].
Proof. intros E [|fuel] s st r st' H Hl; [discriminate|]. simpl in H. eapply shrink_step_leaf; eauto. Qed.
Lemma shrink_stmt_b : forall E fuel s st r st', shrink_stmt fuel E s st = SOk (r, st') -> bpost st (cbinders s) r st'.
Proof.
  intros E fuel. induction fuel as [|fuel IH]; intros s st r st' H; [discriminate|].
  simpl in H. eapply shrink_step_b; eauto. intros. eapply shrink_stmt_leaf; eauto.
Qed.

(* what the simulation and typing proofs need of the state: max_id grows, lifted definitions are added in front *)
Lemma shrink_stmt_mono : forall E k s st t st', shrink_stmt k E s st = SOk (t, st') ->
  (s_max st <= s_max st')%N /\ exists nd, s_lifted st' = nd ++ s_lifted st.
Proof. intros E k s st t st' H. destruct (shrink_stmt_b E k s st t st' H) as (Hm & nd & Hl & _). eauto. Qed.
Lemma shrink_clauses_mono : forall E k cls st cls' st', shrink_clauses (shrink_stmt k E) E cls st = SOk (cls', st') ->
  (s_max st <= s_max st')%N /\ exists nd, s_lifted st' = nd ++ s_lifted st.
Proof.
  intros E k cls st cls' st' H. destruct (shrink_clauses_b _ E (shrink_stmt_b E k) _ _ _ _ H) as (Hm & nd & Hl & _). eauto.
Qed.
Lemma lift_mono : forall E k s st t st', lift (shrink_stmt k E) E s st = SOk (t, st') ->
  (s_max st <= s_max st')%N /\ exists nd, s_lifted st' = nd ++ s_lifted st.
Proof.
  intros E k s st t st' H.
  destruct (lift_b _ E (shrink_stmt_b E k) _ _ _ _ H) as [(Hm & nd & Hl & _) _]. eauto.
Qed.

Lemma cbinders_le_all : forall m,
  (forall t, ib_term m t = true -> forall x, In x (cbinders_term t) -> (x <= m)%N) /\
  (forall c, ctx_le m (clause_ctx c) && ib_stmt m (clause_body c) = true ->
             forall x, In x (cids (clause_ctx c) ++ cbinders (clause_body c)) -> (x <= m)%N) /\
  (forall s, ib_stmt m s = true -> forall x, In x (cbinders s) -> (x <= m)%N).
Proof.
  intros m. apply fs_mutind; intros;
    rewrite ?ib_term_xcase, ?cbinders_term_xcase, ?ib_term_mu, ?ib_stmt_cut, ?ib_stmt_ifc, ?ib_stmt_print in *;
    cbn [cbinders_term cbinders clause_ctx clause_body] in *; try contradiction; split_and.
  - destruct H1 as [<-|H1]; [now apply N.leb_le | eauto].
  - unfold ib_clauses, cbinders_clauses in *. apply in_flat_map in H1 as [cl [Hcl Hx]].
    rewrite Forall_forall in H. rewrite forallb_forall in H0. eapply H; eauto.
  - apply in_app_or in H1 as [H1|H1]; [|eauto]. unfold ctx_le in H0. rewrite forallb_forall in H0.
    unfold cids in H1. apply in_map_iff in H1 as [b0 [<- Hb0]]. apply N.leb_le. now apply H0.
  - apply in_app_or in H2 as [H2|H2]; eauto.
  - apply in_app_or in H2 as [H2|H2]; eauto.
  - eauto.
Qed.
Lemma old_only_of_le : forall m0 l, (forall x, In x l -> (x <= m0)%N) -> old_only m0 l.
Proof.
  intros m0 l H x Hx. unfold cnt. apply count_occ_not_In. intros Hin. apply H in Hin. lia.
Qed.
Lemma old_only_cbinders : forall m0 s, ib_stmt m0 s = true -> old_only m0 (cbinders s).
Proof. intros. apply old_only_of_le. intros x Hx. eapply (proj2 (proj2 (cbinders_le_all m0))); eauto. Qed.
Lemma old_only_cids : forall m0 c, ctx_le m0 c = true -> old_only m0 (cids c).
Proof.
  intros. apply old_only_of_le. intros x Hx. unfold ctx_le in H. rewrite forallb_forall in H.
  unfold cids in Hx. apply in_map_iff in Hx as [b [<- Hb]]. apply N.leb_le. now apply H.
Qed.

Lemma cnt_lifted_rev_append : forall o acc x,
  cnt (lifted_binders (rev_append o acc)) x = cnt (lifted_binders o) x + cnt (lifted_binders acc) x.
Proof.
  induction o as [|d r IH]; intros acc x; [reflexivity|].
  cbn [rev_append]. rewrite IH. unfold lifted_binders. cbn [flat_map]. rewrite !cnt_app. lia.
Qed.

Lemma shrink_def_fr : forall m0 d data codata used m ds used' m',
  shrink_def d data codata used m = SOk (ds, used', m') -> (m0 <= m)%N ->
  id_le m0 (fsdname d) = true -> ctx_le m0 (fsdctx d) = true -> ib_stmt m0 (fsdbody d) = true ->
  (m <= m')%N /\ fresh_cnt m0 m m' (lifted_binders ds).
Proof.
  intros m0 d data codata used m ds used' m' H Hm Hn Hc Hb. unfold shrink_def in H.
  destruct (shrink_stmt _ _ _ _) as [[body st]|] eqn:Hs; [|discriminate]. cbn [sbind] in H. inv H.
  apply shrink_stmt_b in Hs as (Hm1 & nd & Hl & Hg).
  cbn [s_max s_lifted] in *. rewrite app_nil_r in Hl. subst nd. split; auto.
  apply grows_fresh_cnt with (old := cid_id (fsdname d) :: cids (fsdctx d) ++ cbinders (fsdbody d)).
  - cbn [lifted_binders flat_map]. unfold def_binders at 1. cbn [dname dctx dbody]. rewrite ids_shrink_context.
    fold (lifted_binders (s_lifted st)). unfold idn, shrink_identifier, cid_id. grows_solve.
  - apply old_only_cons. split; [now apply N.leb_le|]. apply old_only_app.
    split; [now apply old_only_cids | now apply old_only_cbinders].
Qed.

Lemma shrink_defs_fr : forall m0 ds data codata used m acc out m',
  shrink_defs ds data codata used m acc = SOk (out, m') -> (m0 <= m)%N ->
  forallb (fun d => id_le m0 (fsdname d) && ctx_le m0 (fsdctx d) && ib_stmt m0 (fsdbody d)) ds = true ->
  fresh_cnt m0 m0 m (lifted_binders acc) ->
  (m <= m')%N /\ fresh_cnt m0 m0 m' (lifted_binders out).
Proof.
  induction ds as [|d r IH]; intros data codata used m acc out m' H Hm Hds Hacc; simpl in H.
  - inv H. split; [lia|]. unfold frev. intros x Hx. specialize (Hacc x Hx).
    rewrite cnt_lifted_rev_append. cbn [lifted_binders flat_map]. rewrite cnt_nil. lia.
  - destruct (shrink_def d data codata used m) as [[[o u1] m1]|] eqn:Hd; [|discriminate]. cbn [sbind] in H.
    simpl in Hds. split_and. eapply shrink_def_fr in Hd as [Hm1 Ho]; eauto.
    apply IH in H as [Hm2 Hout]; auto; [split; [lia | exact Hout] | lia |].
    intros x Hx. specialize (Hacc x Hx). specialize (Ho x Hx). rewrite cnt_lifted_rev_append. lia.
Qed.

Lemma fresh_cnt_nodup : forall m0 lo hi B, fresh_cnt m0 lo hi B -> NoDup (filter (fun x => N.ltb m0 x) B).
Proof.
  induction B as [|a r IH]; intros H; simpl; [constructor|].
  assert (Hr : fresh_cnt m0 lo hi r).
  { intros x Hx. specialize (H x Hx). rewrite cnt_cons in H. destruct (N.eq_dec a x); lia. }
  destruct (N.ltb m0 a) eqn:Ha; [|now apply IH].
  constructor; [|now apply IH]. intros Hin. apply filter_In in Hin as [Hin _].
  apply N.ltb_lt in Ha. specialize (H a Ha). rewrite cnt_cons in H. destruct (N.eq_dec a a); [|congruence].
  assert (cnt r a > 0) by (apply count_occ_In; exact Hin). lia.
Qed.

(* Every id that shrinking introduces - ids of lifted labels, parameters of lifted definitions, binders
   (let/create/literal/op variables, clause parameters) - is greater than the input's max_id, at most
   the output's max_id, and the ids introduced are pairwise distinct: in the list of all label ids,
   parameters and binders of the output program, the entries > max_id(input) occur once each. *)
Theorem shrink_fresh_ids : forall p q,
  ids_bounded p = true -> shrink_prog p = SOk q ->
  let B := lifted_binders (pdefs q) in
  (forall x, In x B -> (fspmax p < x)%N -> (x <= pmax q)%N) /\
  NoDup (filter (fun x => N.ltb (fspmax p) x) B).
Proof.
  intros p q Hb H B. unfold shrink_prog in H. destruct (_ || _); [discriminate|].
  destruct (shrink_defs _ _ _ _ _ _) as [[defs m]|] eqn:Hd; [|discriminate]. cbn [sbind] in H. inv H. cbn [pmax pdefs] in *.
  eapply (shrink_defs_fr (fspmax p)) in Hd as [Hm Hc]; [| lia | exact Hb | apply fresh_cnt_nil].
  split; [|eapply fresh_cnt_nodup; eauto].
  intros x Hin Hx. specialize (Hc x Hx). assert (cnt B x > 0) by (apply count_occ_In; exact Hin). unfold B in *. lia.
Qed.

Lemma NoDup_app_intro : forall {X} (a b : list X),
  NoDup a -> NoDup b -> (forall x, In x a -> In x b -> False) -> NoDup (a ++ b).
Proof.
  induction a as [|x r IH]; intros b Ha Hb Hd; simpl; [exact Hb|].
  inversion Ha as [|x' r' Hnin Hr]; subst. constructor.
  - intros Hin. apply in_app_or in Hin as [Hin|Hin]; [contradiction | apply (Hd x); [left; reflexivity | exact Hin]].
  - apply IH; auto. intros y Hy1 Hy2. apply (Hd y); [right; exact Hy1 | exact Hy2].
Qed.

(* Names are compared through [key]: the printed form (`name` or `name_id`, what the back ends use as
   assembly labels) or the identifier itself.  The label loop of `lift` only guarantees a label that is
   printed unlike every label used so far, so [key] may not tell apart identifiers that print alike. *)
Section Labels.
Variables (K : Type) (key : cident -> K).
Hypothesis key_show : forall a b, key a = key b -> show_cident a = show_cident b.

Definition lnames (ds : list def) : list K := map (fun d => key (dname d)) ds.
Definition unames (u : list cident) : list K := map key u.
(* what a run does to (lifted_statements, used_labels): the labels of the new definitions are unlike
   any label used before, pairwise different, and recorded as used *)
Definition lab_post (st st' : sst) : Prop :=
  incl (unames (s_used st)) (unames (s_used st')) /\
  exists nd, s_lifted st' = nd ++ s_lifted st /\ NoDup (lnames nd) /\
    (forall n, In n (lnames nd) -> ~ In n (unames (s_used st)) /\ In n (unames (s_used st'))).
Lemma lab_post_same : forall st st', s_lifted st' = s_lifted st -> s_used st' = s_used st -> lab_post st st'.
Proof.
  intros st st' Hl Hu. split; [rewrite Hu; apply incl_refl|]. exists []. split; [now rewrite Hl|].
  split; [constructor | intros n []].
Qed.
Lemma lab_post_trans : forall st1 st2 st3, lab_post st1 st2 -> lab_post st2 st3 -> lab_post st1 st3.
Proof.
  intros st1 st2 st3 [Hi1 [nd1 [Hl1 [Hn1 Hf1]]]] [Hi2 [nd2 [Hl2 [Hn2 Hf2]]]].
  split; [eapply incl_tran; eauto|]. exists (nd2 ++ nd1). split; [rewrite Hl2, Hl1; now rewrite app_assoc|].
  unfold lnames in *. rewrite map_app. split.
  - apply NoDup_app_intro; auto. intros n H2 H1. apply Hf2 in H2 as [Hnot _]. apply Hf1 in H1 as [_ Hin]. contradiction.
  - intros n Hin. apply in_app_or in Hin as [Hin|Hin].
    + apply Hf2 in Hin as [Hnot Hin']. split; auto.
    + apply Hf1 in Hin as [Hnot Hin']. split; auto.
Qed.

Section LabStep.
Variable rec : fsstmt -> sst -> shres (stmt * sst).
Variable E : senv.
Hypothesis Hrec : forall s st r st', rec s st = SOk (r, st') -> lab_post st st'.

Lemma shrink_clauses_lab : forall cls st r st', shrink_clauses rec E cls st = SOk (r, st') -> lab_post st st'.
Proof.
  induction cls as [|[c x ctx b] rr IH]; intros st r st' H; simpl in H.
  - inv H. now apply lab_post_same.
  - apply sbind_ok in H as ([b' st1] & Hb & H). apply sbind_ok in H as ([r' st2] & Hr & H). inv H.
    eapply lab_post_trans; eauto.
Qed.

Lemma lift_lab : forall s st r st', lift rec E s st = SOk (r, st') -> lab_post st st'.
Proof.
  intros s st r st' H. apply lift_closed in H.
  destruct H as [_ [_ [_ [_ [label [body [st3 [_ [_ [Hnew [_ [Hb ->]]]]]]]]]]]].
  apply Hrec in Hb as [Hi [nd3 [Hl3 [Hn3 Hf3]]]]. cbn [s_lifted s_used] in *.
  assert (Hlab : ~ In (key label) (unames (s_used st))).
  { intros Hin. unfold unames in Hin. apply in_map_iff in Hin as [u [Heq Hu]].
    assert (existsb (fun u => String.eqb (show_cident u) (show_cident label)) (s_used st) = true).
    { apply existsb_exists. exists u. split; auto. apply String.eqb_eq. now apply key_show. }
    congruence. }
  split.
  - intros n Hn. apply Hi. unfold unames. simpl. now right.
  - exists (mkd label (shrink_context (e_codata E) (fresh_params (typed_free_vars s) (s_max st))) body :: nd3).
    split; [now rewrite Hl3|]. unfold lnames in *. cbn [map dname]. split.
    + constructor; auto. intros Hin. apply Hf3 in Hin as [Hnot _]. apply Hnot. unfold unames. simpl. now left.
    + intros n [<-|Hin].
      * split; auto. apply Hi. unfold unames. simpl. now left.
      * apply Hf3 in Hin as [Hnot Hin']. split; auto. intros Hc. apply Hnot. unfold unames. simpl. now right.
Qed.

Lemma shrink_step_lab : forall s st r st', shrink_step rec E s st = SOk (r, st') -> lab_post st st'.
Proof.
  intros s0 st r0 st0 H. apply shrink_step_cases in H. destruct H.
  - (* rename *) eapply Hrec; eauto.
  - (* known *) eapply Hrec; eauto.
  - (* unknown *) apply unknown_cuts_frame in Hu as (_ & ? & ?). now apply lab_post_same.
  - (* critical *) apply critical_cases in Hp. destruct Hp.
    + eapply lab_post_trans; eapply Hrec; eauto.
    + apply critical_clauses_frame in Hcl as (_ & Hl2 & Hu2).
      eapply lab_post_trans; [|eapply lab_post_trans; [apply lab_post_same; eauto | eapply Hrec; exact Hk]].
      destruct (_ || _); [eapply Hrec | eapply lift_lab]; exact He.
  - (* literal, mu~ *) eapply Hrec; eauto.
  - (* literal, covariable *) unfold fresh_var, fresh_identifier in Hx. inv Hx. now apply lab_post_same.
  - (* operation, mu~ *) eapply Hrec; eauto.
  - (* operation, covariable *) unfold fresh_var, fresh_identifier in Hx. inv Hx. now apply lab_post_same.
  - (* let *) eapply Hrec; eauto.
  - (* invoke *) now apply lab_post_same.
  - (* switch *) eapply shrink_clauses_lab; eauto.
  - (* create *) eapply lab_post_trans; [eapply shrink_clauses_lab; eauto | eapply Hrec; eauto].
  - (* ifc *) eapply lab_post_trans; eapply Hrec; eauto.
  - (* print *) eapply Hrec; eauto.
  - now apply lab_post_same.
  - now apply lab_post_same.
Qed.
End LabStep.

Lemma shrink_stmt_lab : forall E fuel s st r st', shrink_stmt fuel E s st = SOk (r, st') -> lab_post st st'.
Proof.
  intros E fuel. induction fuel as [|fuel IH]; intros s st r st' H; [discriminate|].
  simpl in H. eapply shrink_step_lab; eauto.
Qed.

Lemma lnames_rev_append_in : forall o acc n, In n (lnames (rev_append o acc)) <-> In n (lnames o) \/ In n (lnames acc).
Proof.
  intros o acc n. unfold lnames. rewrite rev_append_rev, map_app, map_rev, in_app_iff, <- in_rev. tauto.
Qed.
Lemma lnames_rev_append_nodup : forall o acc,
  NoDup (lnames o) -> NoDup (lnames acc) -> (forall n, In n (lnames o) -> In n (lnames acc) -> False) ->
  NoDup (lnames (rev_append o acc)).
Proof.
  intros o acc Ho Ha Hd. unfold lnames in *. rewrite rev_append_rev, map_app, map_rev.
  apply NoDup_app_intro; auto; [now apply NoDup_rev|]. intros x Hx. apply in_rev in Hx. now apply Hd.
Qed.

Lemma shrink_defs_lab : forall ds data codata used m acc out m',
  shrink_defs ds data codata used m acc = SOk (out, m') ->
  NoDup (lnames acc) -> incl (lnames acc) (unames used) ->
  (forall d, In d ds -> In (key (fsdname d)) (unames used)) ->
  NoDup (map (fun d => key (fsdname d)) ds) ->
  (forall d, In d ds -> ~ In (key (fsdname d)) (lnames acc)) ->
  NoDup (lnames out).
Proof.
  induction ds as [|d r IH]; intros data codata used m acc out m' H Hnd Hincl Hin Hnames Hdisj; simpl in H.
  - inv H. unfold frev. apply lnames_rev_append_nodup; [exact Hnd | constructor | intros n _ []].
  - destruct (shrink_def d data codata used m) as [[[o u1] m1]|] eqn:Hd; [|discriminate]. cbn [sbind] in H.
    unfold shrink_def in Hd.
    destruct (shrink_stmt _ _ _ _) as [[body st]|] eqn:Hs; [|discriminate]. cbn [sbind] in Hd. inv Hd.
    apply shrink_stmt_lab in Hs as [Hi [nd [Hl [Hn Hf]]]]. cbn [s_lifted s_used] in *. rewrite app_nil_r in Hl. subst nd.
    inversion Hnames as [|x l Hdn Hrn]; subst.
    assert (Hd_used : In (key (fsdname d)) (unames used)) by (apply Hin; now left).
    eapply IH in H; eauto.
    + (* NoDup acc' *)
      apply lnames_rev_append_nodup; auto.
      * unfold lnames. cbn [map dname]. unfold shrink_identifier. constructor; auto.
        intros Hc. apply Hf in Hc as [Hnot _]. contradiction.
      * intros n Hn1 Hn2. unfold lnames in Hn1. cbn [map dname] in Hn1. destruct Hn1 as [<-|Hn1].
        -- eapply Hdisj; [now left | exact Hn2].
        -- apply Hf in Hn1 as [Hnot _]. apply Hnot. now apply Hincl.
    + (* acc' within used' *)
      intros n Hn0. apply lnames_rev_append_in in Hn0 as [Hn0|Hn0].
      * unfold lnames in Hn0. cbn [map dname] in Hn0. destruct Hn0 as [<-|Hn0]; [now apply Hi | now apply Hf in Hn0 as [_ ?]].
      * apply Hi. now apply Hincl.
    + intros d' Hd'. apply Hi. apply Hin. now right.
    + intros d' Hd' Hc. apply lnames_rev_append_in in Hc as [Hc|Hc].
      * unfold lnames in Hc. cbn [map dname] in Hc. destruct Hc as [Heq|Hc].
        -- apply Hdn. unfold shrink_identifier in Heq. rewrite Heq. apply in_map with (f := fun d => key (fsdname d)). exact Hd'.
        -- apply Hf in Hc as [Hnot _]. apply Hnot. apply Hin. now right.
      * eapply Hdisj; [right; exact Hd' | exact Hc].
Qed.

Theorem names_fresh : forall p q,
  NoDup (map (fun d => key (fsdname d)) (fspdefs p)) -> shrink_prog p = SOk q ->
  NoDup (map (fun d => key (dname d)) (pdefs q)).
Proof.
  intros p q Hn H. unfold shrink_prog in H. destruct (_ || _); [discriminate|].
  destruct (shrink_defs _ _ _ _ _ _) as [[defs m]|] eqn:Hd; [|discriminate]. cbn [sbind] in H. inv H. cbn [pdefs].
  change (NoDup (lnames defs)).
  eapply shrink_defs_lab; eauto.
  - constructor.
  - intros n [].
  - intros d Hin. unfold unames. rewrite map_map. apply in_map with (f := fun d => key (fsdname d)). exact Hin.
Qed.
End Labels.

(* The printed names of the definitions of the output program are pairwise distinct whenever those of
   the input are: the label of a lifted statement differs, as printed, from every input definition and
   every other lifted label. *)
Theorem lift_label_fresh : forall p q,
  NoDup (map (fun d => show_cident (fsdname d)) (fspdefs p)) -> shrink_prog p = SOk q ->
  NoDup (map (fun d => show_ident (dname d)) (pdefs q)).
Proof. exact (names_fresh _ show_cident (fun a b H => H)). Qed.
