(* C15, the checker on programs WITH type parameters and type arguments:
   - HashMap-based substitution (mk_mappings / subst_ty) = positional instantiation (inst) of the rules;
   - the invariant [pinv] of the instance tables: every instance, constructor instance and destructor
     instance is the instantiation of a declared template at well-formed type arguments, keyed by its
     printed name; every instance has all its xtor instances;
   - Ty::check: succeeds exactly on well-formed types ([ty_check_sound], [ty_check_complete]) and
     leaves the instance of the type in the table.
   Names are identifier-like ([name_ok], Proof/PrintInj.v), so printed names determine (head, args). *)
From Coq Require Import List ZArith String Bool Permutation Lia.
From SCC Require Import Base.Sexp Lang.SynUtil Lang.FunSyn Model.Check Sem.FunTyping
  Proof.FunInd Proof.FunEq Proof.CheckAnn Proof.TypingReject Proof.CheckBuild Proof.CheckMono Proof.CheckMonoSound
  Proof.PrintInj.
Import ListNotations.
Open Scope list_scope.

Lemma fold_ainsert_fresh : forall {V} (l acc : amap V),
  NoDup (map fst acc ++ map fst l) ->
  fold_left (fun m kv => ainsert m (fst kv) (snd kv)) l acc = acc ++ l.
Proof.
  induction l as [|[k v] r IH]; intros acc Hn; simpl; [rewrite app_nil_r; reflexivity|].
  rewrite ainsert_fresh.
  - rewrite IH; [rewrite <- app_assoc; reflexivity|]. rewrite map_app. simpl. rewrite <- app_assoc. exact Hn.
  - destruct (aget acc k) eqn:E; [|reflexivity]. exfalso. apply aget_In in E.
    simpl in Hn. apply NoDup_remove_2 in Hn. apply Hn. apply in_or_app. left.
    apply in_map_iff. exists (k, v0). auto.
Qed.
Lemma map_fst_combine : forall (ps : list fname) (targs : list fty),
  List.length targs = List.length ps -> map fst (combine ps targs) = ps.
Proof.
  induction ps as [|p r IH]; intros [|a l] H; simpl in *; try discriminate; [reflexivity|].
  rewrite IH by lia. reflexivity.
Qed.
Lemma mk_mappings_combine : forall ps targs, nodup ps = true -> List.length targs = List.length ps ->
  mk_mappings ps targs = combine ps targs.
Proof.
  intros ps targs Hn Hl. unfold mk_mappings. rewrite fold_ainsert_fresh; [reflexivity|].
  simpl. rewrite map_fst_combine by assumption. apply nodup_NoDup. assumption.
Qed.
Lemma aget_combine : forall ps (targs : list fty) n, List.length targs = List.length ps ->
  aget (combine ps targs) n = match param_pos ps n with Some i => nth_error targs i | None => None end.
Proof.
  induction ps as [|p r IH]; intros [|a l] n H; simpl in *; try discriminate; [reflexivity|].
  destruct (String.eqb p n); [reflexivity|]. rewrite IH by lia.
  destruct (param_pos r n); reflexivity.
Qed.
Lemma param_pos_lt : forall ps n i, param_pos ps n = Some i -> i < List.length ps.
Proof.
  induction ps as [|p r IH]; intros n i H; simpl in H; [discriminate|].
  destruct (String.eqb p n); [inversion H; simpl; lia|].
  destruct (param_pos r n) eqn:E; [|discriminate]. inversion H; subst. simpl. specialize (IH _ _ E). lia.
Qed.
Lemma param_pos_mem : forall ps n, mem n ps = match param_pos ps n with Some _ => true | None => false end.
Proof.
  induction ps as [|p r IH]; intros n; simpl; [reflexivity|]. rewrite (String.eqb_sym n p).
  destruct (String.eqb p n); [reflexivity|]. simpl. rewrite (IH n). destruct (param_pos r n); reflexivity.
Qed.
Lemma nth_error_nth_lt : forall {X} (l : list X) i d, i < List.length l -> nth_error l i = Some (nth i l d).
Proof.
  induction l as [|x r IH]; intros i d H; simpl in H; [lia|]. destruct i; simpl; [reflexivity|]. apply IH. lia.
Qed.

Theorem subst_inst : forall ps targs, nodup ps = true -> List.length targs = List.length ps ->
  forall t, subst_ty (mk_mappings ps targs) t = inst ps targs t.
Proof.
  intros ps targs Hn Hl. rewrite mk_mappings_combine by assumption.
  induction t using fty_ind'; [reflexivity|]. simpl.
  rewrite aget_combine by assumption.
  destruct (param_pos ps n) as [i|] eqn:Ep.
  - rewrite (nth_error_nth_lt targs i FI64); [reflexivity|]. rewrite Hl. eapply param_pos_lt; eassumption.
  - f_equal. induction H as [|a r Ha _ IH]; simpl; [reflexivity|]. rewrite Ha, IH. reflexivity.
Qed.
Definition inst_binding (ps : list fname) (targs : list fty) (b : fbinding) : fbinding :=
  mkfb (fbvar b) (fbchi b) (inst ps targs (fbty b)).
Definition inst_ctx (ps : list fname) (targs : list fty) (c : fctx) : fctx := map (inst_binding ps targs) c.
Lemma subst_ctx_inst : forall ps targs, nodup ps = true -> List.length targs = List.length ps ->
  forall c, subst_ctx (mk_mappings ps targs) c = inst_ctx ps targs c.
Proof.
  intros ps targs Hn Hl c. unfold subst_ctx, inst_ctx. apply map_ext. intros b.
  unfold subst_binding, inst_binding. rewrite subst_inst by assumption. reflexivity.
Qed.

Lemma tys_names_ok_nth : forall l i, tys_names_ok l = true -> ty_names_ok (nth i l FI64) = true.
Proof.
  induction l as [|a r IH]; intros i H; destruct i; simpl in *; try reflexivity;
    apply andb_true_iff in H; destruct H; auto.
Qed.
Lemma inst_names_ok : forall ps targs, tys_names_ok targs = true ->
  forall t, ty_names_ok t = true -> ty_names_ok (inst ps targs t) = true.
Proof.
  intros ps targs Ht. induction t using fty_ind'; intros Hn; [reflexivity|]. simpl.
  destruct (param_pos ps n); [apply tys_names_ok_nth; assumption|].
  rewrite ty_names_ok_decl in *. apply andb_true_iff in Hn. destruct Hn as [Hn Ha]. rewrite Hn. simpl.
  unfold tys_names_ok in *. rewrite forallb_forall in *. intros x Hx.
  apply in_map_iff in Hx. destruct Hx as [y [<- Hy]]. rewrite Forall_forall in H. auto.
Qed.
Lemma inst_ctx_names_ok : forall ps targs c, tys_names_ok targs = true -> ctx_names_ok c = true ->
  ctx_names_ok (inst_ctx ps targs c) = true.
Proof.
  intros ps targs c Ht Hc. unfold ctx_names_ok, inst_ctx in *. rewrite forallb_forall in *.
  intros b Hb. apply in_map_iff in Hb. destruct Hb as [b0 [<- Hb0]]. simpl. apply inst_names_ok; auto.
Qed.
Lemma forallb_nth : forall {X} (f : X -> bool) l i d, forallb f l = true -> f d = true -> f (nth i l d) = true.
Proof.
  induction l as [|a r IH]; intros i d H Hd; destruct i; simpl in *; try assumption;
    apply andb_true_iff in H; destruct H; auto.
Qed.
Lemma wf_tty_inst : forall ts ps targs, forallb (wf_ty ts) targs = true ->
  forall t, wf_tty ts ps t = true -> wf_ty ts (inst ps targs t) = true.
Proof.
  intros ts ps targs Ht. induction t using fty_ind'; intros Hw; [reflexivity|].
  simpl in Hw. simpl inst. rewrite param_pos_mem in Hw.
  destruct (param_pos ps n) as [i|].
  - apply forallb_nth; [assumption|reflexivity].
  - simpl. destruct (find_type ts n) as [td|]; [|discriminate].
    apply andb_true_iff in Hw. destruct Hw as [Hl Hf]. rewrite map_length, Hl. simpl.
    rewrite forallb_forall in *. intros x Hx. apply in_map_iff in Hx. destruct Hx as [y [<- Hy]].
    rewrite Forall_forall in H. auto.
Qed.

(* PW_names, PW_params come from build_symbol_table, the name fields from [prog_names_ok]; PW_ret holds of every program *)
Record poly_world (ts : list tdecl) (fs : list fdef) : Prop := {
  PW_names : names_ok ts fs = true;
  PW_params : forall td, In td ts -> nodup (td_params td) = true;
  PW_tnames : forall td, In td ts -> name_ok (td_name td) = true;
  PW_xnames : forall td s, In td ts -> In s (td_xtors td) -> name_ok (xs_name s) = true;
  PW_sigs : forall td s, In td ts -> In s (td_xtors td) -> ctx_names_ok (xs_args s) = true /\ oty_names_ok (xs_ret s) = true;
  PW_defs : forall d, In d fs -> ctx_names_ok (fdctx d) = true /\ ty_names_ok (fdret d) = true;
  PW_ret : forall td s, In td ts -> td_pol td = FCodata -> In s (td_xtors td) -> xs_ret s <> None
}.

Lemma tys_check_eq : forall l st,
  (fix go (l : list fty) (st : symtab) : cres symtab :=
     match l with [] => COk st | a :: r => doc st' <- ty_check a st; go r st' end) l st = tys_check l st.
Proof. induction l as [|a r IH]; intros st; simpl; [reflexivity|]. destruct (ty_check a st); simpl; auto. Qed.
Lemma ty_check_decl : forall name targs st,
  ty_check (FDecl name targs) st =
  match aget (st_types st) (name ++ print_targs targs)%string with
  | Some _ => COk st
  | None =>
      match aget (st_type_templates st) name with
      | None => CErr EUndefined
      | Some (pol, params, xtors) =>
          if negb (Nat.eqb (List.length targs) (List.length params)) then CErr EWrongNumberOfTypeArguments
          else doc st1 <- tys_check targs st; create_instance_tail (name ++ print_targs targs)%string targs pol params xtors st1
      end
  end.
Proof.
  intros name targs st. simpl.
  destruct (aget (st_types st) (name ++ print_targs targs)%string); [reflexivity|].
  destruct (aget (st_type_templates st) name) as [[[pol params] xtors]|]; [|reflexivity].
  destruct (negb (Nat.eqb (List.length targs) (List.length params))); [reflexivity|].
  rewrite tys_check_eq. reflexivity.
Qed.

Lemma insert_ctor_instances_spec : forall m sfx xs st st',
  insert_ctor_instances m sfx xs st = COk st' ->
  same_templates st st' /\ st_types st' = st_types st /\ st_dtors st' = st_dtors st
  /\ (forall k v, aget (st_ctors st') k = Some v ->
        aget (st_ctors st) k = Some v
        \/ exists x sg, In x xs /\ k = (x ++ sfx)%string /\ aget (st_ctor_templates st) x = Some sg /\ v = subst_ctx m sg)
  /\ (forall k, ahas (st_ctors st) k = true -> ahas (st_ctors st') k = true)
  /\ (forall x, In x xs -> ahas (st_ctors st') (x ++ sfx)%string = true).
Proof.
  induction xs as [|x r IH]; intros st st' H; simpl in H.
  - inversion H; subst. repeat split; auto using same_templates_refl; try (intros x []).
  - destruct (aget (st_ctor_templates st) x) as [sg|] eqn:Et; [|discriminate].
    apply IH in H. simpl in H. destruct H as [S [Ety [Ed [Hk [Hm Hx]]]]].
    split; [destruct S as [? [? [? ?]]]; repeat split; assumption|].
    split; [assumption|]. split; [assumption|]. split; [|split].
    + intros k v Hg. destruct (Hk k v Hg) as [Ho|[y [sg' [Hy [-> [Hsg ->]]]]]].
      * rewrite aget_ainsert in Ho. destruct (String.eqb (x ++ sfx)%string k) eqn:E; [|left; assumption].
        apply String.eqb_eq in E. subst k. inversion Ho; subst. right. exists x, sg. repeat split; simpl; auto.
      * right. exists y, sg'. repeat split; simpl; auto.
    + intros k Hh. apply Hm. unfold ahas in *. rewrite aget_ainsert. destruct (String.eqb (x ++ sfx)%string k); [reflexivity|assumption].
    + intros y [<-|Hy]; [|auto]. apply Hm. unfold ahas. rewrite aget_ainsert, String.eqb_refl. reflexivity.
Qed.
Lemma insert_dtor_instances_spec : forall m sfx xs st st',
  insert_dtor_instances m sfx xs st = COk st' ->
  same_templates st st' /\ st_types st' = st_types st /\ st_ctors st' = st_ctors st
  /\ (forall k v, aget (st_dtors st') k = Some v ->
        aget (st_dtors st) k = Some v
        \/ exists x sg ret, In x xs /\ k = (x ++ sfx)%string /\ aget (st_dtor_templates st) x = Some (sg, ret)
                            /\ v = (subst_ctx m sg, subst_ty m ret))
  /\ (forall k, ahas (st_dtors st) k = true -> ahas (st_dtors st') k = true)
  /\ (forall x, In x xs -> ahas (st_dtors st') (x ++ sfx)%string = true).
Proof.
  induction xs as [|x r IH]; intros st st' H; simpl in H.
  - inversion H; subst. repeat split; auto using same_templates_refl; try (intros x []).
  - destruct (aget (st_dtor_templates st) x) as [[sg ret]|] eqn:Et; [|discriminate].
    apply IH in H. simpl in H. destruct H as [S [Ety [Ed [Hk [Hm Hx]]]]].
    split; [destruct S as [? [? [? ?]]]; repeat split; assumption|].
    split; [assumption|]. split; [assumption|]. split; [|split].
    + intros k v Hg. destruct (Hk k v Hg) as [Ho|[y [sg' [ret' [Hy [-> [Hsg ->]]]]]]].
      * rewrite aget_ainsert in Ho. destruct (String.eqb (x ++ sfx)%string k) eqn:E; [|left; assumption].
        apply String.eqb_eq in E. subst k. inversion Ho; subst. right. exists x, sg, ret. repeat split; simpl; auto.
      * right. exists y, sg', ret'. repeat split; simpl; auto.
    + intros k Hh. apply Hm. unfold ahas in *. rewrite aget_ainsert. destruct (String.eqb (x ++ sfx)%string k); [reflexivity|assumption].
    + intros y [<-|Hy]; [|auto]. apply Hm. unfold ahas. rewrite aget_ainsert, String.eqb_refl. reflexivity.
Qed.
Lemma insert_ctor_instances_ok : forall m sfx xs st,
  (forall x, In x xs -> exists sg, aget (st_ctor_templates st) x = Some sg) ->
  exists st', insert_ctor_instances m sfx xs st = COk st'.
Proof.
  induction xs as [|x r IH]; intros st H; simpl; [eauto|].
  destruct (H x (or_introl eq_refl)) as [sg ->]. apply IH. intros y Hy. simpl. apply H. right. assumption.
Qed.
Lemma insert_dtor_instances_ok : forall m sfx xs st,
  (forall x, In x xs -> exists sg, aget (st_dtor_templates st) x = Some sg) ->
  exists st', insert_dtor_instances m sfx xs st = COk st'.
Proof.
  induction xs as [|x r IH]; intros st H; simpl; [eauto|].
  destruct (H x (or_introl eq_refl)) as [[sg ret] ->]. apply IH. intros y Hy. simpl. apply H. right. assumption.
Qed.

Lemma NoDup_keys_ainsert : forall {V} (m : amap V) k v, NoDup (map fst m) -> NoDup (map fst (ainsert m k v)).
Proof.
  intros V m k v Hn. destruct (aget m k) eqn:E.
  - assert (Hk : map fst (ainsert m k v) = map fst m).
    { clear Hn. revert E. induction m as [|[k' v'] r IH]; simpl; intros E; [discriminate|].
      destruct (String.eqb k' k) eqn:Ek; simpl.
      - apply String.eqb_eq in Ek. subst. reflexivity.
      - rewrite IH by assumption. reflexivity. }
    rewrite Hk. assumption.
  - rewrite ainsert_fresh by assumption. rewrite map_app. simpl.
    apply NoDup_app_snoc; [assumption|]. apply aget_none_notin. assumption.
Qed.

Section Poly.
  Variable ts : list tdecl.
  Variable fs : list fdef.
  Hypothesis W : poly_world ts fs.

  Lemma pw_nodup_xtors : forall pol, nodup (xtor_names pol ts) = true.
  Proof. exact (nodup_xtors ts fs (PW_names _ _ W)). Qed.
  Lemma pw_find_type : forall td, In td ts -> find_type ts (td_name td) = Some td.
  Proof. intros td H. apply find_type_unique; [apply (names_ok_parts ts fs (PW_names _ _ W))|assumption]. Qed.

  Lemma find_xsig_of_in : forall td s, In td ts -> In s (td_xtors td) -> find_xsig td (xs_name s) = Some s.
  Proof.
    intros td s Htd Hs.
    pose proof (xtor_names_of_type_nodup ts (td_pol td) td (pw_nodup_xtors _) Htd eq_refl) as Hn.
    unfold find_xsig. revert Hn Hs. generalize (td_xtors td). intros l. induction l as [|a r IH]; intros Hn Hs; [destruct Hs|].
    simpl in *. apply andb_true_iff in Hn. destruct Hn as [Hm Hn].
    destruct Hs as [->|Hs]; [rewrite String.eqb_refl; reflexivity|].
    destruct (String.eqb (xs_name a) (xs_name s)) eqn:E; [|auto].
    apply String.eqb_eq in E. exfalso.
    assert (mem (xs_name a) (map xs_name r) = true) by (apply mem_In; rewrite E; apply in_map; assumption).
    rewrite H in Hm. discriminate.
  Qed.
  Lemma pw_find_xtor : forall td s, In td ts -> In s (td_xtors td) -> find_xtor ts (td_pol td) (xs_name s) = Some (td, s).
  Proof.
    intros td s Htd Hs. apply find_xtor_unique; auto using pw_nodup_xtors, find_xsig_of_in.
  Qed.
  Lemma xtor_owner_unique : forall td td' s s', In td ts -> In td' ts -> td_pol td = td_pol td' ->
    In s (td_xtors td) -> In s' (td_xtors td') -> xs_name s = xs_name s' -> td = td' /\ s = s'.
  Proof.
    intros td td' s s' Htd Htd' Hp Hs Hs' Hn.
    pose proof (pw_find_xtor td s Htd Hs) as H1. pose proof (pw_find_xtor td' s' Htd' Hs') as H2.
    rewrite Hp, Hn in H1. rewrite H1 in H2. inversion H2. auto.
  Qed.

  Definition targs_ok (td : tdecl) (targs : list fty) : Prop :=
    List.length targs = List.length (td_params td) /\ forallb (wf_ty ts) targs = true.
  Definition sub_of (td : tdecl) (targs : list fty) : amap fty := mk_mappings (td_params td) targs.

  Definition has_inst_p (st : symtab) (t : fty) : Prop :=
    match t with FI64 => True | FDecl n a => ahas (st_types st) (n ++ print_targs a)%string = true end.
  Lemma has_inst_grows : forall st st' t, grows st st' -> has_inst_p st t -> has_inst_p st' t.
  Proof. intros st st' [|n a] G H; [exact I|]. simpl in *. apply G. exact H. Qed.

  Record pinv (st : symtab) : Prop := {
    pi_types : forall key pol targs xs, aget (st_types st) key = Some (pol, targs, xs) ->
      exists td, In td ts /\ key = (td_name td ++ print_targs targs)%string /\ td_pol td = pol
                 /\ xs = map xs_name (td_xtors td) /\ targs_ok td targs;
    pi_ctors : forall k sg, aget (st_ctors st) k = Some sg ->
      exists td targs s, In td ts /\ td_pol td = FData /\ In s (td_xtors td)
                 /\ k = (xs_name s ++ print_targs targs)%string
                 /\ sg = subst_ctx (sub_of td targs) (xs_args s) /\ targs_ok td targs;
    pi_dtors : forall k sg ret, aget (st_dtors st) k = Some (sg, ret) ->
      exists td targs s r0, In td ts /\ td_pol td = FCodata /\ In s (td_xtors td) /\ xs_ret s = Some r0
                 /\ k = (xs_name s ++ print_targs targs)%string
                 /\ sg = subst_ctx (sub_of td targs) (xs_args s) /\ ret = subst_ty (sub_of td targs) r0
                 /\ targs_ok td targs;
    pi_xtors_of : forall key pol targs xs x, aget (st_types st) key = Some (pol, targs, xs) -> In x xs ->
      match pol with
      | FData => ahas (st_ctors st) (x ++ print_targs targs)%string = true
      | FCodata => ahas (st_dtors st) (x ++ print_targs targs)%string = true
      end;
    pi_targs : forall key pol targs xs, aget (st_types st) key = Some (pol, targs, xs) -> Forall (has_inst_p st) targs;
    pi_nodup : NoDup (map fst (st_types st))
  }.

  Lemma pinv_start : forall st, st_types st = [] -> st_ctors st = [] -> st_dtors st = [] -> pinv st.
  Proof.
    intros st Ht Hc Hd. constructor; intros; rewrite ?Ht, ?Hc, ?Hd in *; simpl in *; try discriminate. constructor.
  Qed.


  Lemma wf_ty_names_ok : forall t, wf_ty ts t = true -> ty_names_ok t = true.
  Proof.
    induction t using fty_ind'; intros Hw; [reflexivity|]. simpl in Hw.
    destruct (find_type ts n) as [td|] eqn:Ef; [|discriminate].
    apply andb_true_iff in Hw. destruct Hw as [_ Hw].
    rewrite ty_names_ok_decl. pose proof (find_type_name _ _ _ Ef) as <-.
    rewrite (PW_tnames _ _ W td (find_type_in _ _ _ Ef)). simpl.
    unfold tys_names_ok. rewrite forallb_forall in *. intros x Hx. rewrite Forall_forall in H. auto.
  Qed.
  Lemma wf_tys_names_ok : forall l, forallb (wf_ty ts) l = true -> tys_names_ok l = true.
  Proof.
    intros l H. unfold tys_names_ok. rewrite forallb_forall in *. intros x Hx. apply wf_ty_names_ok. auto.
  Qed.

  Lemma instance_key_inj : forall td td' targs targs',
    In td ts -> In td' ts -> tys_names_ok targs = true -> tys_names_ok targs' = true ->
    (td_name td ++ print_targs targs = td_name td' ++ print_targs targs')%string -> td = td' /\ targs = targs'.
  Proof.
    intros td td' targs targs' Htd Htd' N N' E.
    destruct (instance_name_inj _ _ _ _ (name_ok_no_delim _ (PW_tnames _ _ W td Htd))
                (name_ok_no_delim _ (PW_tnames _ _ W td' Htd')) N N' E) as [En ->].
    split; [|reflexivity]. pose proof (pw_find_type td Htd) as H1. pose proof (pw_find_type td' Htd') as H2.
    rewrite En in H1. rewrite H1 in H2. inversion H2. reflexivity.
  Qed.

  Lemma template_of_type : forall st td, tables ts fs st -> In td ts ->
    aget (st_type_templates st) (td_name td) = Some (td_pol td, td_params td, map xs_name (td_xtors td)).
  Proof. intros st td T Htd. rewrite (t_tt _ _ _ T), (pw_find_type td Htd). reflexivity. Qed.
  Lemma ctor_template_of : forall st td s, tables ts fs st -> In td ts -> td_pol td = FData -> In s (td_xtors td) ->
    aget (st_ctor_templates st) (xs_name s) = Some (xs_args s).
  Proof.
    intros st td s T Htd Hp Hs. rewrite (t_ct _ _ _ T). rewrite <- Hp, (pw_find_xtor td s Htd Hs). reflexivity.
  Qed.
  Lemma dtor_template_of : forall st td s, tables ts fs st -> In td ts -> td_pol td = FCodata -> In s (td_xtors td) ->
    exists r0, xs_ret s = Some r0 /\ aget (st_dtor_templates st) (xs_name s) = Some (xs_args s, r0).
  Proof.
    intros st td s T Htd Hp Hs. rewrite (t_dt _ _ _ T). rewrite <- Hp, (pw_find_xtor td s Htd Hs). unfold dt_val. simpl.
    destruct (xs_ret s) as [r0|] eqn:Er; [eauto|]. exfalso. eapply (PW_ret _ _ W); eassumption.
  Qed.

  Lemma create_instance_spec : forall st td targs st',
    tables ts fs st -> pinv st -> In td ts -> targs_ok td targs -> Forall (has_inst_p st) targs ->
    create_instance_tail (td_name td ++ print_targs targs)%string targs (td_pol td) (td_params td)
      (map xs_name (td_xtors td)) st = COk st' ->
    pinv st' /\ same_templates st st' /\ grows st st' /\ ahas (st_types st') (td_name td ++ print_targs targs)%string = true.
  Proof.
    intros st td targs st' T I Htd Hok Hta H. unfold create_instance_tail in H.
    apply cbind_ok in H. destruct H as [st1 [H1 H]]. inversion H; subst st'. clear H.
    fold (sub_of td targs) in H1.
    assert (Hgrow : forall n, ahas (ainsert (st_types st1) (td_name td ++ print_targs targs)%string
                      (td_pol td, targs, map xs_name (td_xtors td))) n = true <->
                    n = (td_name td ++ print_targs targs)%string \/ ahas (st_types st1) n = true).
    { intros n. unfold ahas. rewrite aget_ainsert.
      destruct (String.eqb (td_name td ++ print_targs targs)%string n) eqn:E.
      - apply String.eqb_eq in E. subst. simpl. tauto.
      - apply String.eqb_neq in E. split; [auto|intros [->|]; [congruence|assumption]]. }
    destruct (td_pol td) eqn:Ep.
    - destruct (insert_ctor_instances_spec _ _ _ _ _ H1) as [S [Ety [Ed [Hk [Hm Hx]]]]].
      split; [|split; [|split]].
      + constructor; simpl.
        * intros key pol targs0 xs Hg. rewrite aget_ainsert in Hg.
          destruct (String.eqb (td_name td ++ print_targs targs)%string key) eqn:E.
          -- apply String.eqb_eq in E. inversion Hg; subst. exists td. splits; auto.
          -- rewrite Ety in Hg. eapply (pi_types _ I); eassumption.
        * intros k sg Hg. destruct (Hk k sg Hg) as [Ho|[x [sg0 [Hx0 [-> [Hsg ->]]]]]].
          -- eapply (pi_ctors _ I); eassumption.
          -- apply in_map_iff in Hx0. destruct Hx0 as [s [<- Hs]].
             rewrite (ctor_template_of st td s T Htd Ep Hs) in Hsg. inversion Hsg; subst.
             exists td, targs, s. splits; auto.
        * intros k sg ret Hg. rewrite Ed in Hg. eapply (pi_dtors _ I); eassumption.
        * intros key pol targs0 xs x Hg Hin. rewrite aget_ainsert in Hg.
          destruct (String.eqb (td_name td ++ print_targs targs)%string key) eqn:E.
          -- inversion Hg; subst. apply Hx. assumption.
          -- rewrite Ety in Hg. pose proof (pi_xtors_of _ I _ _ _ _ _ Hg Hin) as Hp.
             destruct pol; [apply Hm; assumption|rewrite Ed; assumption].
        * intros key pol targs0 xs Hg. rewrite aget_ainsert in Hg.
          assert (Hgr : grows st (set_types st1 (ainsert (st_types st1) (td_name td ++ print_targs targs)%string
                                   (FData, targs, map xs_name (td_xtors td))))).
          { intros n Hn. simpl. unfold ahas in *. rewrite aget_ainsert.
            destruct (String.eqb (td_name td ++ print_targs targs)%string n); [reflexivity|]. rewrite Ety. exact Hn. }
          destruct (String.eqb (td_name td ++ print_targs targs)%string key) eqn:E.
          -- inversion Hg; subst. eapply Forall_impl; [|exact Hta]. intros a Ha. eapply has_inst_grows; eassumption.
          -- rewrite Ety in Hg. eapply Forall_impl; [|exact (pi_targs _ I _ _ _ _ Hg)].
             intros a Ha. eapply has_inst_grows; eassumption.
        * apply NoDup_keys_ainsert. rewrite Ety. apply (pi_nodup _ I).
      + destruct S as [? [? [? ?]]]. repeat split; assumption.
      + intros n Hn. simpl. apply Hgrow. right. rewrite Ety. assumption.
      + simpl. apply Hgrow. left. reflexivity.
    - destruct (insert_dtor_instances_spec _ _ _ _ _ H1) as [S [Ety [Ed [Hk [Hm Hx]]]]].
      split; [|split; [|split]].
      + constructor; simpl.
        * intros key pol targs0 xs Hg. rewrite aget_ainsert in Hg.
          destruct (String.eqb (td_name td ++ print_targs targs)%string key) eqn:E.
          -- apply String.eqb_eq in E. inversion Hg; subst. exists td. splits; auto.
          -- rewrite Ety in Hg. eapply (pi_types _ I); eassumption.
        * intros k sg Hg. rewrite Ed in Hg. eapply (pi_ctors _ I); eassumption.
        * intros k sg ret Hg. destruct (Hk k _ Hg) as [Ho|[x [sg0 [ret0 [Hx0 [-> [Hsg Hv]]]]]]].
          -- eapply (pi_dtors _ I); eassumption.
          -- inversion Hv; subst. apply in_map_iff in Hx0. destruct Hx0 as [s [<- Hs]].
             destruct (dtor_template_of st td s T Htd Ep Hs) as [r0 [Hr Hsg']]. rewrite Hsg' in Hsg. inversion Hsg; subst.
             exists td, targs, s, ret0. splits; auto.
        * intros key pol targs0 xs x Hg Hin. rewrite aget_ainsert in Hg.
          destruct (String.eqb (td_name td ++ print_targs targs)%string key) eqn:E.
          -- inversion Hg; subst. apply Hx. assumption.
          -- rewrite Ety in Hg. pose proof (pi_xtors_of _ I _ _ _ _ _ Hg Hin) as Hp.
             destruct pol; [rewrite Ed; assumption|apply Hm; assumption].
        * intros key pol targs0 xs Hg. rewrite aget_ainsert in Hg.
          assert (Hgr : grows st (set_types st1 (ainsert (st_types st1) (td_name td ++ print_targs targs)%string
                                   (FCodata, targs, map xs_name (td_xtors td))))).
          { intros n Hn. simpl. unfold ahas in *. rewrite aget_ainsert.
            destruct (String.eqb (td_name td ++ print_targs targs)%string n); [reflexivity|]. rewrite Ety. exact Hn. }
          destruct (String.eqb (td_name td ++ print_targs targs)%string key) eqn:E.
          -- inversion Hg; subst. eapply Forall_impl; [|exact Hta]. intros a Ha. eapply has_inst_grows; eassumption.
          -- rewrite Ety in Hg. eapply Forall_impl; [|exact (pi_targs _ I _ _ _ _ Hg)].
             intros a Ha. eapply has_inst_grows; eassumption.
        * apply NoDup_keys_ainsert. rewrite Ety. apply (pi_nodup _ I).
      + destruct S as [? [? [? ?]]]. repeat split; assumption.
      + intros n Hn. simpl. apply Hgrow. right. rewrite Ety. assumption.
      + simpl. apply Hgrow. left. reflexivity.
  Qed.

  Lemma create_instance_ok : forall st td targs, tables ts fs st -> In td ts ->
    exists st', create_instance_tail (td_name td ++ print_targs targs)%string targs (td_pol td) (td_params td)
                  (map xs_name (td_xtors td)) st = COk st'.
  Proof.
    intros st td targs T Htd. unfold create_instance_tail.
    pose proof (template_xtors_present ts fs (PW_ret _ _ W) st _ _ _ _ T (template_of_type st td T Htd)) as Hx.
    destruct (td_pol td).
    - destruct (insert_ctor_instances_ok (mk_mappings (td_params td) targs) (print_targs targs) _ st Hx) as [st1 ->]. simpl. eauto.
    - destruct (insert_dtor_instances_ok (mk_mappings (td_params td) targs) (print_targs targs) _ st Hx) as [st1 ->]. simpl. eauto.
  Qed.

  Definition ty_sound_at (t : fty) : Prop :=
    forall st st', ty_names_ok t = true -> tables ts fs st -> pinv st -> ty_check t st = COk st' ->
      wf_ty ts t = true /\ pinv st' /\ same_templates st st' /\ grows st st' /\ has_inst_p st' t.

  Lemma tys_check_sound : forall l, Forall ty_sound_at l ->
    forall st st', tys_names_ok l = true -> tables ts fs st -> pinv st -> tys_check l st = COk st' ->
      forallb (wf_ty ts) l = true /\ pinv st' /\ same_templates st st' /\ grows st st' /\ Forall (has_inst_p st') l.
  Proof.
    intros l HF. induction HF as [|a r Ha _ IH]; intros st st' N T I H; simpl in H.
    - inversion H; subst. simpl. auto 10 using same_templates_refl, grows_refl.
    - simpl in N. apply andb_true_iff in N. destruct N as [Na Nr].
      apply cbind_ok in H. destruct H as [st1 [H1 H]].
      destruct (Ha st st1 Na T I H1) as [Hw [I1 [S1 [G1 Hi1]]]].
      destruct (IH st1 st' Nr (tables_same _ _ _ _ T S1) I1 H) as [Hwr [I2 [S2 [G2 Hi2]]]].
      simpl. rewrite Hw, Hwr. splits; frame.
      constructor; [eapply has_inst_grows; eassumption|assumption].
  Qed.

  Theorem ty_check_sound_all : forall t, ty_sound_at t.
  Proof.
    induction t using fty_ind'; unfold ty_sound_at; intros st st' N T I Hc.
    - simpl in Hc. inversion Hc; subst. simpl. auto using same_templates_refl, grows_refl.
    - rewrite ty_names_ok_decl in N. apply andb_true_iff in N. destruct N as [Nn Na].
      rewrite ty_check_decl in Hc.
      destruct (aget (st_types st) (n ++ print_targs args)%string) as [[[pol targs] xs]|] eqn:Eg.
      + inversion Hc; subst st'.
        destruct (pi_types _ I _ _ _ _ Eg) as [td [Htd [Ek [Hp [Hxs [Hlen Hwf]]]]]].
        destruct (instance_name_inj _ _ _ _ (name_ok_no_delim _ Nn) (name_ok_no_delim _ (PW_tnames _ _ W td Htd))
                    Na (wf_tys_names_ok _ Hwf) Ek) as [-> ->].
        splits; auto using same_templates_refl, grows_refl.
        * simpl. rewrite (pw_find_type td Htd), Hlen, PeanoNat.Nat.eqb_refl. simpl. exact Hwf.
        * simpl. unfold ahas. rewrite Eg. reflexivity.
      + destruct (aget (st_type_templates st) n) as [[[pol params] xtors]|] eqn:Et; [|discriminate].
        destruct (find_type_tt ts fs st n pol params xtors T Et) as [td [Hf [Hp [Hps Hxs]]]].
        pose proof (find_type_in _ _ _ Hf) as Htd. pose proof (find_type_name _ _ _ Hf) as Hn.
        destruct (Nat.eqb (List.length args) (List.length params)) eqn:El; [|discriminate]. simpl in Hc.
        apply PeanoNat.Nat.eqb_eq in El.
        apply cbind_ok in Hc. destruct Hc as [st1 [H1 Hc]].
        destruct (tys_check_sound args H st st1 Na T I H1) as [Hwf [I1 [S1 [G1 Hta]]]].
        subst n pol params xtors.
        destruct (create_instance_spec st1 td args st' (tables_same _ _ _ _ T S1) I1 Htd (conj El Hwf) Hta Hc)
          as [I2 [S2 [G2 Hh]]].
        splits; frame.
        simpl. rewrite Hf, El, PeanoNat.Nat.eqb_refl. simpl. exact Hwf.
  Qed.
  Lemma ty_check_sound : forall t st st', ty_names_ok t = true -> tables ts fs st -> pinv st -> ty_check t st = COk st' ->
    wf_ty ts t = true /\ pinv st' /\ same_templates st st' /\ grows st st' /\ has_inst_p st' t.
  Proof. intros t. apply ty_check_sound_all. Qed.

  Lemma tys_check_complete : forall l, Forall (fun t => forall st, wf_ty ts t = true -> tables ts fs st -> pinv st ->
                                                  exists st', ty_check t st = COk st') l ->
    forall st, forallb (wf_ty ts) l = true -> tables ts fs st -> pinv st -> exists st', tys_check l st = COk st'.
  Proof.
    intros l HF. induction HF as [|a r Ha _ IH]; intros st Hw T I; simpl; [eauto|].
    simpl in Hw. apply andb_true_iff in Hw. destruct Hw as [Hwa Hwr].
    destruct (Ha st Hwa T I) as [st1 H1]. rewrite H1. simpl.
    destruct (ty_check_sound a st st1 (wf_ty_names_ok _ Hwa) T I H1) as [_ [I1 [S1 _]]].
    apply IH; auto. eapply tables_same; eassumption.
  Qed.
  Theorem ty_check_complete : forall t st, wf_ty ts t = true -> tables ts fs st -> pinv st ->
    exists st', ty_check t st = COk st'.
  Proof.
    induction t using fty_ind'; intros st Hw T I; [simpl; eauto|].
    rewrite ty_check_decl. destruct (aget (st_types st) (n ++ print_targs args)%string); [eauto|].
    simpl in Hw. destruct (find_type ts n) as [td|] eqn:Ef; [|discriminate].
    apply andb_true_iff in Hw. destruct Hw as [Hl Hwf].
    pose proof (find_type_in _ _ _ Ef) as Htd. pose proof (find_type_name _ _ _ Ef) as Hn. subst n.
    rewrite (template_of_type st td T Htd), Hl. simpl.
    destruct (tys_check_complete args H st Hwf T I) as [st1 H1]. rewrite H1. simpl.
    destruct (tys_check_sound args (proj2 (Forall_forall _ _) (fun t _ => ty_check_sound_all t)) st st1
                (wf_tys_names_ok _ Hwf) T I H1) as [_ [I1 [S1 _]]].
    apply create_instance_ok; [eapply tables_same; eassumption|assumption].
  Qed.
  Lemma ty_check_ok : forall t st, wf_ty ts t = true -> tables ts fs st -> pinv st ->
    exists st', ty_check t st = COk st' /\ pinv st' /\ same_templates st st' /\ grows st st' /\ has_inst_p st' t.
  Proof.
    intros t st Hw T I. destruct (ty_check_complete t st Hw T I) as [st' H]. exists st'. split; [exact H|].
    destruct (ty_check_sound t st st' (wf_ty_names_ok _ Hw) T I H) as [_ R]. exact R.
  Qed.

  Lemma check_equality_sound : forall a b st st', ty_names_ok a = true -> ty_names_ok b = true ->
    tables ts fs st -> pinv st -> check_equality st a b = COk st' ->
    a = b /\ wf_ty ts a = true /\ pinv st' /\ same_templates st st' /\ grows st st' /\ has_inst_p st' a.
  Proof.
    intros a b st st' Na Nb T I H. unfold check_equality in H.
    apply cbind_ok in H. destruct H as [s1 [H1 H]]. apply cbind_ok in H. destruct H as [s2 [H2 H]].
    destruct (fty_eqb a b) eqn:E; [|discriminate]. inversion H; subst s2.
    destruct (ty_check_sound _ _ _ Na T I H1) as [Hw [I1 [S1 [G1 Hi1]]]].
    destruct (ty_check_sound _ _ _ Nb (tables_same _ _ _ _ T S1) I1 H2) as [Hw2 [I2 [S2 [G2 Hi2]]]].
    apply fty_eqb_eq in E. subst b. splits; frame.
  Qed.
  Lemma check_equality_ok : forall a st, wf_ty ts a = true -> tables ts fs st -> pinv st ->
    exists st', check_equality st a a = COk st' /\ pinv st' /\ same_templates st st' /\ grows st st' /\ has_inst_p st' a.
  Proof.
    intros a st Hw T I. unfold check_equality.
    destruct (ty_check_ok a st Hw T I) as [s1 [H1 [I1 [S1 [G1 Hi1]]]]]. rewrite H1. simpl.
    destruct (ty_check_ok a s1 Hw (tables_same _ _ _ _ T S1) I1) as [s2 [H2 [I2 [S2 [G2 Hi2]]]]]. rewrite H2. simpl.
    rewrite fty_eqb_refl. exists s2. splits; frame.
  Qed.
End Poly.
