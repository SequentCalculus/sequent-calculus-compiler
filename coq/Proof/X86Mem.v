(* Refinement of the allocator operations to the x86-64 code of axcut2x86_64's memory.rs, on the ISA
   semantics of Sem/X86Sem.v:
     - abs_heap: the abstraction of a machine state to the abstract allocator state of Model/Heap.v
       (header = word 0 of a block, pointer slots = the words at offsets 16, 32, 48, heap / free =
       the two allocator registers, the frontier a ghost);
     - structured execution of code with forward jumps (`steps`), for code placed anywhere in an
       image whose labels resolve to their positions (shown for mk_image with duplicate-free labels);
     - x86_share_block_ok, x86_erase_block_ok: the emitted code of share_block_n / erase_block,
       the pointer in a register or in a spill slot, null included, all branches;
     - x86_release_block_ok, x86_acquire_block_reg_ok / _spill_ok: release_block and acquire_block; the
       two locations of the new block share the code after the first copy (`acquire_tail`).
   For share_block_n and erase_block the run on the machine (`_machine`: exact heap, registers; any
   aligned heap address, counts modulo 2^64) is separated from its reading on the abstract heap
   (`share_abs`, `erase_abs`: a block, no wrap); Proof/X86MemSubst.v uses the runs for the heap-level
   effects of Proof/X86Exec.v.  The `_frame` statements add that no word other than a block header
   changes (the integer slots of a block survive); the `_ok` statements are their projections. *)
From Coq Require Import List ZArith NArith String Bool Lia FMapPositive.
From SCC Require Import Base.Sexp Lang.AxSyn Sem.AxSem Model.Backend Model.X86 Sem.X86Sem Generated.Constants
  Proof.X86State Proof.X86Sel.
From SCC Require Model.Heap.
Import ListNotations.
Open Scope Z_scope.

Definition hword (s : xstate) (a : Z) : Z :=
  match PM.find (key a) (heap s) with Some z => z | None => 0 end.
Definition abs_mem (s : xstate) : Heap.mem :=
  fun a => {| Heap.hdr := hword s a; Heap.ps := [hword s (a + 16); hword s (a + 32); hword s (a + 48)] |}.
Definition reg_or0 (s : xstate) (r : N) : Z := match rget s r with Some z => z | None => 0 end.
Definition abs_heap (F : Z) (s : xstate) : Heap.st :=
  {| Heap.m := abs_mem s; Heap.heap := reg_or0 s HEAP; Heap.free := reg_or0 s FREE; Heap.frontier := F |}.

(* block addresses of the heap region *)
Definition is_blk (a : Z) : Prop := exists k, 0 <= k /\ a = HEAP_BASE + 64 * k /\ a + 64 <= HEAP_BASE + HEAP_SIZE.
(* equality of abstract states on the blocks (memories are functions; no extensionality axiom) *)
Definition st_eqB (a b : Heap.st) : Prop :=
  Heap.heap a = Heap.heap b /\ Heap.free a = Heap.free b /\ Heap.frontier a = Heap.frontier b /\
  forall x, is_blk x -> Heap.m a x = Heap.m b x.

Definition heap_addr (a : Z) : Prop := a mod 8 = 0 /\ HEAP_BASE <= a /\ a + 8 <= HEAP_BASE + HEAP_SIZE.
Definition hset (s : xstate) (a z : Z) : xstate :=
  {| regs := regs s; heap := PM.add (key a) z (heap s); stack := stack s; flags := flags s; out := out s;
     hw := Z.max (hw s) a |}.

Lemma is_blk_addr p i : is_blk p -> (i = 0 \/ i = 16 \/ i = 32 \/ i = 48) -> heap_addr (p + i).
Proof.
  intros (k & Hk & -> & Hhi) Hi. unfold heap_addr, HEAP_BASE, HEAP_SIZE in *.
  repeat split; try lia.
  replace (268435456 + 64 * k + i) with (i + (33554432 + 8 * k) * 8) by lia. rewrite Z.mod_add by lia.
  destruct Hi as [->|[->|[->| ->]]]; reflexivity.
Qed.
Lemma heap_addr_facts a : heap_addr a -> aligned a = true /\ in_heap a = true /\ in_stack a = false /\ 0 <= a.
Proof.
  intros (A & L & H). unfold aligned, in_heap, in_stack, HEAP_BASE, HEAP_SIZE, STACK_LIMIT, STACK_TOP in *.
  rewrite A. repeat split; try lia.
  all: try (apply andb_true_iff; split; apply Z.leb_le; lia).
  all: try (apply andb_false_iff; left; apply Z.leb_gt; lia).
Qed.

Lemma mload_heap s a : heap_addr a -> mload s a = MOk (Some (hword s a)).
Proof. intros H. destruct (heap_addr_facts a H) as (A & B & _ & _). unfold mload. now rewrite A, B. Qed.
Lemma mstore_heap s a z : heap_addr a -> mstore s a (Some z) = MOk (hset s a z).
Proof. intros H. destruct (heap_addr_facts a H) as (A & B & _ & _). unfold mstore. now rewrite A, B. Qed.
Lemma ea_heap s r i p k : rget s r = Some p -> heap_addr (p + i) -> ea s r i k = k (p + i).
Proof. intros R H. destruct (heap_addr_facts _ H) as (_ & _ & C & _). unfold ea, need. now rewrite R, C. Qed.

Lemma hword_hset_same s a z : hword (hset s a z) a = z.
Proof. unfold hword, hset; cbn. now rewrite PM.gss. Qed.
Lemma hword_hset_other s a z b : 0 <= a -> 0 <= b -> a <> b -> hword (hset s a z) b = hword s b.
Proof. intros A B H. unfold hword, hset; cbn. rewrite PM.gso; auto. intro E. apply key_inj in E; auto. Qed.
(* a write to a positive address, read back at any address *)
Lemma key_pos_eq a b : 0 < a -> key a = key b -> a = b.
Proof.
  unfold key. intros Ha E. destruct (Z_le_gt_dec b 0) as [Hb|Hb].
  - rewrite (Z2Pos.to_pos_nonpos (b + 1)) in E by lia.
    apply (f_equal Z.pos) in E. rewrite Z2Pos.id in E by lia. lia.
  - apply (f_equal Z.pos) in E. rewrite !Z2Pos.id in E by lia. lia.
Qed.
Lemma hword_hset s a z b : 0 < a -> hword (hset s a z) b = if b =? a then z else hword s b.
Proof.
  intros Ha. unfold hword, hset; cbn [heap]. destruct (Z.eqb_spec b a) as [->|Hne].
  - now rewrite PM.gss.
  - rewrite PM.gso; auto. intro E. symmetry in E. apply key_pos_eq in E; auto.
Qed.
Lemma hword_hset_blk s p z b : is_blk p -> hword (hset s p z) b = if b =? p then z else hword s b.
Proof. intros (k & Hk & -> & _). apply hword_hset. unfold HEAP_BASE. lia. Qed.
(* a write to a block header changes no other word *)
Lemma hword_hset_nonblk s p z a : is_blk p -> ~ is_blk a -> hword (hset s p z) a = hword s a.
Proof. intros Hb Ha. rewrite hword_hset_blk by exact Hb. destruct (Z.eqb_spec a p); [subst; contradiction|reflexivity]. Qed.
Lemma rget_hset s a z r : rget (hset s a z) r = rget s r. Proof. reflexivity. Qed.
Lemma stack_hset s a z : stack (hset s a z) = stack s. Proof. reflexivity. Qed.
Lemma out_hset s a z : out (hset s a z) = out s. Proof. reflexivity. Qed.
Lemma hword_rset s r v a : hword (rset s r v) a = hword s a. Proof. reflexivity. Qed.
Lemma hword_set_flags s f a : hword (set_flags s f) a = hword s a. Proof. reflexivity. Qed.
Lemma frame_ok_hset s sp a z : frame_ok s sp -> frame_ok (hset s a z) sp.
Proof. intros (A & B). split; [exact A|exact B]. Qed.

Section HeapSteps.
Variable im : image.
Lemma step_CMPI0 s r v : rget s r = Some v -> step im (CMPI r 0) s = Next (set_flags s (Some (v, 0))).
Proof. intros H. cbn [step]. change (fits32 0) with true. unfold need. now rewrite H. Qed.
Lemma step_CMPIM0_slot s sp q v :
  frame_ok s sp -> slot_ok q -> sget s sp q = Some v ->
  step im (CMPIM STACK (stack_offset q) 0) s = Next (set_flags s (Some (v, 0))).
Proof.
  intros F Q H. cbn [step]. change (fits32 0) with true. rewrite (ea_stack s sp) by auto. unfold withm, need.
  rewrite mload_slot by auto. now rewrite H.
Qed.
Lemma step_CMPIM0_heap s r p :
  rget s r = Some p -> heap_addr p ->
  step im (CMPIM r 0 0) s = Next (set_flags s (Some (hword s p, 0))).
Proof.
  intros R H. cbn [step]. change (fits32 0) with true. rewrite (ea_heap s r 0 p) by (auto; now rewrite Z.add_0_r).
  rewrite Z.add_0_r. unfold withm, need. now rewrite mload_heap.
Qed.
Lemma step_ADDIM_heap s r p j :
  rget s r = Some p -> heap_addr p -> fits32 j = true ->
  step im (ADDIM r 0 j) s = Next (set_flags (hset s p (wrap (hword s p + j))) None).
Proof.
  intros R H J. cbn [step]. rewrite J. rewrite (ea_heap s r 0 p) by (auto; now rewrite Z.add_0_r).
  rewrite Z.add_0_r. unfold withm, need. rewrite mload_heap by auto. now rewrite mstore_heap.
Qed.
Lemma step_MOVS_heap s a b p v :
  rget s b = Some p -> heap_addr p -> rget s a = Some v ->
  step im (MOVS a b 0) s = Next (hset s p v).
Proof.
  intros R H A. cbn [step]. rewrite (ea_heap s b 0 p) by (auto; now rewrite Z.add_0_r).
  rewrite Z.add_0_r. unfold withm. now rewrite A, mstore_heap.
Qed.
Lemma step_JEL s l x y :
  flags s = Some (x, y) ->
  step im (JEL l) s = if x =? y then goto_label im s l else Next s.
Proof. intros H. cbn [step]. unfold cond_jump. now rewrite H. Qed.
End HeapSteps.

Fixpoint pnth (p : positive) (n : nat) : positive :=
  match n with O => p | S k => Pos.succ (pnth p k) end.
Lemma pnth_succ p n : pnth (Pos.succ p) n = Pos.succ (pnth p n).
Proof. induction n; cbn; congruence. Qed.
Lemma pnth_add p a b : pnth (pnth p a) b = pnth p (a + b).
Proof. induction b; cbn; rewrite ?Nat.add_0_r, <- ?plus_n_Sm; cbn; congruence. Qed.

(* the instruction list cs sits in the image from index pos on, and its labels resolve to their
   positions *)
Definition code_at (im : image) (pos : positive) (cs : list xcode) : Prop :=
  forall n c, nth_error cs n = Some c -> PM.find (pnth pos n) (code im) = Some c.
Definition labels_at (im : image) (pos : positive) (cs : list xcode) : Prop :=
  forall n l, nth_error cs n = Some (LAB l) -> find_label (labels im) l = Some (pnth pos n).

Inductive steps (im : image) : positive -> xstate -> positive -> xstate -> Prop :=
| steps_refl pc s : steps im pc s pc s
| steps_next pc s c s1 pc' s' :
    PM.find pc (code im) = Some c -> step im c s = Next s1 -> steps im (Pos.succ pc) s1 pc' s' ->
    steps im pc s pc' s'
| steps_jump pc s c s1 i pc' s' :
    PM.find pc (code im) = Some c -> step im c s = Jump s1 i -> steps im i s1 pc' s' ->
    steps im pc s pc' s'.

Lemma steps_trans im pc s pc1 s1 pc2 s2 : steps im pc s pc1 s1 -> steps im pc1 s1 pc2 s2 -> steps im pc s pc2 s2.
Proof. induction 1; intros H2; auto; [eapply steps_next|eapply steps_jump]; eauto. Qed.

(* `steps` is what the executable runner does *)
Lemma steps_run_chunk im pc s pc' s' :
  steps im pc s pc' s' -> exists n, forall fuel, run_chunk (n + fuel) im pc s = run_chunk fuel im pc' s'.
Proof.
  induction 1 as [pc s|pc s c s1 pc' s' Hc Hs _ [n IH]|pc s c s1 i pc' s' Hc Hs _ [n IH]].
  - exists O. reflexivity.
  - exists (S n). intros fuel. cbn [Nat.add run_chunk]. rewrite Hc, Hs. apply IH.
  - exists (S n). intros fuel. cbn [Nat.add run_chunk]. rewrite Hc, Hs. apply IH.
Qed.

(* mk_image places a program at index 1 and resolves duplicate-free labels to their positions *)
Lemma build_code_below : forall cs i a im j, (j < i)%positive -> PM.find j (code (build cs i a im)) = PM.find j (code im).
Proof.
  induction cs as [|c r IH]; intros i a im j Hj; cbn [build code]; auto.
  rewrite IH by lia. cbn [code]. apply PM.gso. lia.
Qed.
Lemma build_code_at : forall cs i a im, code_at (build cs i a im) i cs.
Proof.
  induction cs as [|c r IH]; intros i a im n c0 Hn; [destruct n; discriminate|].
  destruct n as [|n]; cbn [nth_error pnth] in *.
  - inversion Hn; subst. cbn [build]. rewrite build_code_below by lia. cbn [code]. apply PM.gss.
  - cbn [build]. rewrite <- pnth_succ. eapply IH; eauto.
Qed.
Definition label_names (cs : list xcode) : list string :=
  flat_map (fun c => match c with LAB l => [l] | _ => [] end) cs.
Lemma build_labels_old : forall cs i a im l,
  ~ In l (label_names cs) -> find_label (labels (build cs i a im)) l = find_label (labels im) l.
Proof.
  induction cs as [|c r IH]; intros i a im l Hl; cbn [build labels]; auto.
  rewrite IH.
  - cbn [labels]. destruct c; auto. cbn [find_label]. destruct (String.eqb_spec l l0); auto.
    subst. exfalso. apply Hl. cbn. now left.
  - intro H. apply Hl. cbn [label_names flat_map]. apply in_app_iff. now right.
Qed.
Lemma build_labels_at : forall cs i a im, NoDup (label_names cs) -> labels_at (build cs i a im) i cs.
Proof.
  induction cs as [|c r IH]; intros i a im Hnd n l Hn; [destruct n; discriminate|].
  assert (Hnd' : NoDup (label_names r)).
  { cbn [label_names flat_map] in Hnd. now apply Heap.NoDup_app_r in Hnd. }
  destruct n as [|n]; cbn [nth_error pnth] in *.
  - inversion Hn; subst. cbn [build]. rewrite build_labels_old.
    + cbn [labels find_label]. now rewrite String.eqb_refl.
    + cbn [label_names flat_map app] in Hnd. now inversion Hnd.
  - cbn [build]. rewrite <- pnth_succ. eapply IH; eauto.
Qed.
Theorem mk_image_code_labels cs :
  NoDup (label_names cs) -> code_at (mk_image cs) 1%positive cs /\ labels_at (mk_image cs) 1%positive cs.
Proof. intros H. split; [apply build_code_at|now apply build_labels_at]. Qed.
(* a sub-list of placed code is placed code *)
Lemma code_at_app im pos a b c : code_at im pos (a ++ b ++ c) -> code_at im (pnth pos (List.length a)) b.
Proof.
  intros H n x Hn. rewrite pnth_add. apply H. rewrite nth_error_app2 by lia.
  replace (List.length a + n - List.length a)%nat with n by lia. rewrite nth_error_app1; auto. apply nth_error_Some. congruence.
Qed.
Lemma labels_at_app im pos a b c : labels_at im pos (a ++ b ++ c) -> labels_at im (pnth pos (List.length a)) b.
Proof.
  intros H n x Hn. rewrite pnth_add. apply H. rewrite nth_error_app2 by lia.
  replace (List.length a + n - List.length a)%nat with n by lia. rewrite nth_error_app1; auto. apply nth_error_Some. congruence.
Qed.

Lemma is_blk_nonneg p : is_blk p -> 0 <= p.
Proof. intros (k & Hk & -> & _). unfold HEAP_BASE. lia. Qed.
Lemma abs_mem_hset s p z x :
  is_blk p -> is_blk x -> abs_mem (hset s p z) x = Heap.set_hdr (abs_mem s) p z x.
Proof.
  intros Hp Hx. unfold Heap.set_hdr, Heap.upd. destruct (Z.eqb_spec x p) as [->|Hne].
  - unfold abs_mem. cbn [Heap.ps Heap.hdr]. pose proof (is_blk_nonneg p Hp).
    rewrite hword_hset_same, !hword_hset_other by lia. reflexivity.
  - unfold abs_mem. destruct Hp as (k & Hk & -> & Hp), Hx as (j & Hj & -> & Hx). unfold HEAP_BASE in *.
    rewrite !hword_hset_other by lia. reflexivity.
Qed.

Lemma wrap_id z : min_int <= z <= max_int -> wrap z = z.
Proof. unfold wrap, min_int, max_int, two63, two64. intros H. rewrite Z.mod_small by lia. lia. Qed.

Lemma st_eqB_refl a : st_eqB a a.
Proof. repeat split; auto. Qed.
Lemma st_eqB_trans a b c : st_eqB a b -> st_eqB b c -> st_eqB a c.
Proof. intros (A1 & A2 & A3 & A4) (B1 & B2 & B3 & B4). repeat split; try congruence. intros x Hx. rewrite A4, B4; auto. Qed.
Lemma st_eqB_sym a b : st_eqB a b -> st_eqB b a.
Proof. intros (A1 & A2 & A3 & A4). repeat split; auto. intros x Hx. symmetry; auto. Qed.
(* erase respects the block-wise equality *)
Lemma erase_st_eqB a b p : st_eqB a b -> (p = 0 \/ is_blk p) -> st_eqB (Heap.erase p a) (Heap.erase p b).
Proof.
  intros (A1 & A2 & A3 & A4) Hp. unfold Heap.erase. destruct (Z.eqb_spec p 0); [repeat split; auto|].
  destruct Hp as [|Hb]; [contradiction|]. rewrite (A4 p Hb).
  destruct (Heap.hdr (Heap.m b p) =? 0); (split; [|split; [|split]]); cbn; auto;
    intros x Hx; unfold Heap.set_hdr, Heap.upd; destruct (x =? p); rewrite ?A2, ?(A4 p Hb), ?(A4 x Hx); auto.
Qed.
Lemma nth_error_skipn_add {A} k : forall (l : list A) n, nth_error (skipn k l) n = nth_error l (k + n).
Proof. induction k as [|k IH]; intros l n; cbn; auto. destruct l; cbn; auto. now destruct n. Qed.
Lemma nth_error_firstn_some {A} m : forall (l : list A) n c, nth_error (firstn m l) n = Some c -> nth_error l n = Some c.
Proof. induction m as [|m IH]; intros l n c H; [destruct n; discriminate|]. destruct l; [destruct n; discriminate|]. destruct n; cbn in *; auto. Qed.
Lemma code_at_slice im pos cs off E : code_at im pos cs -> firstn (List.length E) (skipn off cs) = E -> code_at im (pnth pos off) E.
Proof.
  intros HC HE n c Hn. rewrite pnth_add. apply HC. rewrite <- HE in Hn. apply nth_error_firstn_some in Hn.
  now rewrite nth_error_skipn_add in Hn.
Qed.
Lemma labels_at_slice im pos cs off E : labels_at im pos cs -> firstn (List.length E) (skipn off cs) = E -> labels_at im (pnth pos off) E.
Proof.
  intros HC HE n c Hn. rewrite pnth_add. apply HC. rewrite <- HE in Hn. apply nth_error_firstn_some in Hn.
  now rewrite nth_error_skipn_add in Hn.
Qed.

Lemma code_at_app2 im pos a b : code_at im pos (a ++ b) -> code_at im pos a /\ code_at im (pnth pos (List.length a)) b.
Proof.
  intros H. split.
  - intros n c Hn. apply H. rewrite nth_error_app1; auto. apply nth_error_Some. congruence.
  - intros n c Hn. rewrite pnth_add. apply H. rewrite nth_error_app2 by lia.
    now replace (List.length a + n - List.length a)%nat with n by lia.
Qed.
Lemma labels_at_app2 im pos a b : labels_at im pos (a ++ b) -> labels_at im pos a /\ labels_at im (pnth pos (List.length a)) b.
Proof.
  intros H. split.
  - intros n c Hn. apply H. rewrite nth_error_app1; auto. apply nth_error_Some. congruence.
  - intros n c Hn. rewrite pnth_add. apply H. rewrite nth_error_app2 by lia.
    now replace (List.length a + n - List.length a)%nat with n by lia.
Qed.
Lemma steps_app_len im pos (a b : list xcode) s s1 s2 :
  steps im pos s (pnth pos (List.length a)) s1 ->
  steps im (pnth pos (List.length a)) s1 (pnth (pnth pos (List.length a)) (List.length b)) s2 ->
  steps im pos s (pnth pos (List.length (a ++ b))) s2.
Proof. intros A B. rewrite app_length, <- pnth_add. eapply steps_trans; eassumption. Qed.

Definition same_but_temp (s s' : xstate) : Prop :=
  (forall r, r <> TEMP -> rget s' r = rget s r) /\ stack s' = stack s /\ out s' = out s.

(* a stack pointer for the worked examples *)
Lemma sp_ok_below_top : sp_ok (STACK_TOP - 4096).
Proof. unfold sp_ok, STACK_LIMIT, STACK_TOP. change SPILL_SPACE with 2048. split; [reflexivity|lia]. Qed.
Lemma is_blk_nth k : 0 <= k -> 64 * k + 64 <= HEAP_SIZE -> is_blk (HEAP_BASE + 64 * k).
Proof. intros A B. exists k. split; [exact A|]. split; [reflexivity|lia]. Qed.
Lemma blk_heap_addr p : is_blk p -> heap_addr p.
Proof. intros H. rewrite <- (Z.add_0_r p). apply is_blk_addr; auto. Qed.

Lemma same_but_temp_regs s s' : same_but_temp s s' -> reg_or0 s' HEAP = reg_or0 s HEAP /\ reg_or0 s' FREE = reg_or0 s FREE.
Proof. intros (H & _). unfold reg_or0. rewrite !H by discriminate. auto. Qed.

(* one instruction of placed code: the next one, or a jump; register reads through a chain of writes *)
Ltac nxt HC k := eapply steps_next; [apply (HC k); reflexivity| |].
Ltac jmp HC k := eapply steps_jump; [apply (HC k); reflexivity| |].
Ltac rg := repeat first [rewrite rget_set_flags | rewrite rget_hset | rewrite rget_sset | rewrite rget_rset_other by (first [congruence|discriminate])].

Section Refine.
Variable im : image.

(* share_block_n on the machine: the count of a non-null p grows by n modulo 2^64, no other heap word changes *)
Lemma x86_share_reg_machine pos r n lc s p :
  let cs := fst (x_share_block_n (XR r) n lc) in
  code_at im pos cs -> labels_at im pos cs ->
  rget s r = Some p -> (p = 0 \/ heap_addr p) -> fits32 (Z.of_N n) = true ->
  exists s', steps im pos s (pnth pos (List.length cs)) s' /\
    heap s' = (if p =? 0 then heap s else PM.add (key p) (wrap (hword s p + Z.of_N n)) (heap s)) /\
    (forall r', rget s' r' = rget s r') /\ stack s' = stack s /\ out s' = out s.
Proof.
  intros cs HC HL P Hp Hn. unfold cs in *. clear cs.
  cbn [x_share_block_n skip_if_zero compare_immediate fst app List.length] in *.
  destruct (Z.eqb_spec p 0) as [->|Hp0].
  - exists (set_flags s (Some (0, 0))). split; [|split; [reflexivity|split; [reflexivity|split; reflexivity]]].
    nxt HC 0%nat. { apply step_CMPI0. exact P. }
    jmp HC 1%nat. { rewrite (step_JEL im _ _ 0 0) by reflexivity. cbn [Z.eqb]. unfold goto_label. rewrite (HL 3%nat _ eq_refl). reflexivity. }
    nxt HC 3%nat. { reflexivity. }
    apply steps_refl.
  - destruct Hp as [|Ha]; [contradiction|].
    exists (set_flags (hset (set_flags s (Some (p, 0))) p (wrap (hword s p + Z.of_N n))) None).
    split; [|split; [reflexivity|split; [reflexivity|split; reflexivity]]].
    nxt HC 0%nat. { apply step_CMPI0. exact P. }
    nxt HC 1%nat. { rewrite (step_JEL im _ _ p 0) by reflexivity. destruct (Z.eqb_spec p 0); [contradiction|reflexivity]. }
    nxt HC 2%nat. { change REFERENCE_COUNT_OFFSET with 0. eapply step_ADDIM_heap; [exact P|exact Ha|exact Hn]. }
    nxt HC 3%nat. { reflexivity. }
    apply steps_refl.
Qed.

Lemma x86_share_spill_machine pos q n lc s sp p :
  let cs := fst (x_share_block_n (XS q) n lc) in
  code_at im pos cs -> labels_at im pos cs ->
  frame_ok s sp -> slot_ok q -> sget s sp q = Some p -> (p = 0 \/ heap_addr p) -> fits32 (Z.of_N n) = true ->
  exists s', steps im pos s (pnth pos (List.length cs)) s' /\
    heap s' = (if p =? 0 then heap s else PM.add (key p) (wrap (hword s p + Z.of_N n)) (heap s)) /\
    (forall r', r' <> TEMP -> rget s' r' = rget s r') /\ stack s' = stack s /\ out s' = out s.
Proof.
  intros cs HC HL FR T P Hp Hn. unfold cs in *. clear cs.
  cbn [x_share_block_n skip_if_zero compare_immediate fst app List.length] in *.
  destruct (Z.eqb_spec p 0) as [->|Hp0].
  - exists (set_flags s (Some (0, 0))). split; [|split; [reflexivity|split; [reflexivity|split; reflexivity]]].
    nxt HC 0%nat. { apply (step_CMPIM0_slot im s sp); [exact FR|exact T|exact P]. }
    jmp HC 1%nat. { rewrite (step_JEL im _ _ 0 0) by reflexivity. cbn [Z.eqb]. unfold goto_label. rewrite (HL 4%nat _ eq_refl). reflexivity. }
    nxt HC 4%nat. { reflexivity. }
    apply steps_refl.
  - destruct Hp as [|Ha]; [contradiction|].
    set (s1 := set_flags s (Some (p, 0))).
    set (s2 := rset s1 TEMP (Some p)).
    exists (set_flags (hset s2 p (wrap (hword s p + Z.of_N n))) None).
    split; [|split; [reflexivity|split; [|split; reflexivity]]].
    + nxt HC 0%nat. { apply (step_CMPIM0_slot im s sp); [exact FR|exact T|exact P]. }
      nxt HC 1%nat. { rewrite (step_JEL im _ _ p 0) by reflexivity. destruct (Z.eqb_spec p 0); [contradiction|reflexivity]. }
      nxt HC 2%nat. { rewrite (step_MOVL_slot im s1 sp) by (auto; now apply frame_ok_set_flags). unfold s1. rewrite sget_set_flags, P. reflexivity. }
      nxt HC 3%nat. { change REFERENCE_COUNT_OFFSET with 0. eapply step_ADDIM_heap; [apply rget_rset_same|exact Ha|exact Hn]. }
      nxt HC 4%nat. { reflexivity. }
      apply steps_refl.
    + intros r' Hr. rewrite rget_set_flags, rget_hset. unfold s2. rewrite rget_rset_other by congruence. reflexivity.
Qed.

(* what that heap is on the abstract side, for a block whose count does not wrap *)
Lemma share_abs F s s' p n :
  heap s' = (if p =? 0 then heap s else PM.add (key p) (wrap (hword s p + n)) (heap s)) ->
  rget s' HEAP = rget s HEAP -> rget s' FREE = rget s FREE ->
  (p = 0 \/ is_blk p) -> (p <> 0 -> wrap (hword s p + n) = hword s p + n) ->
  st_eqB (abs_heap F s') (Heap.share p n (abs_heap F s)) /\
  (forall a, hword s' a = if negb (p =? 0) && (a =? p) then hword s p + n else hword s a).
Proof.
  intros Hh RH RF Hp Hw. unfold Heap.share.
  assert (Regs : Heap.heap (abs_heap F s') = Heap.heap (abs_heap F s) /\ Heap.free (abs_heap F s') = Heap.free (abs_heap F s)).
  { cbn [abs_heap Heap.heap Heap.free]. unfold reg_or0. now rewrite RH, RF. }
  destruct Regs as [E1 E2].
  destruct (Z.eqb_spec p 0) as [->|Hp0]; cbn [negb andb].
  - assert (W : forall a, hword s' a = hword s a) by (intros a; unfold hword; now rewrite Hh).
    split; [|exact W]. split; [exact E1|]. split; [exact E2|]. split; [reflexivity|].
    intros x _. cbn [abs_heap Heap.m]. unfold abs_mem. now rewrite !W.
  - destruct Hp as [|Hb]; [contradiction|]. rewrite Hw in Hh by exact Hp0.
    assert (W : forall a, hword s' a = hword (hset s p (hword s p + n)) a) by (intros a; unfold hword; now rewrite Hh).
    split.
    + split; [exact E1|]. split; [exact E2|]. split; [reflexivity|].
      intros x Hx. cbn [abs_heap Heap.m]. rewrite <- (abs_mem_hset s p _ x Hb Hx). unfold abs_mem. now rewrite !W.
    + intros a. rewrite W. now apply hword_hset_blk.
Qed.

(* the pointer in a register: the exact words afterwards *)
Lemma x86_share_reg_frame pos r n lc s p F :
  let cs := fst (x_share_block_n (XR r) n lc) in
  code_at im pos cs -> labels_at im pos cs ->
  rget s r = Some p -> (p = 0 \/ is_blk p) -> fits32 (Z.of_N n) = true ->
  (p <> 0 -> wrap (hword s p + Z.of_N n) = hword s p + Z.of_N n) ->
  exists s', steps im pos s (pnth pos (List.length cs)) s' /\
     st_eqB (abs_heap F s') (Heap.share p (Z.of_N n) (abs_heap F s)) /\
     (forall r', rget s' r' = rget s r') /\ stack s' = stack s /\ out s' = out s /\
     (forall a, hword s' a = if negb (p =? 0) && (a =? p) then hword s p + Z.of_N n else hword s a).
Proof.
  intros cs HC HL P Hp Hn Hw.
  destruct (x86_share_reg_machine pos r n lc s p HC HL P) as (s' & ST & Hh & Rs & Stk & Out); auto.
  { destruct Hp as [|Hb]; [now left|right; now apply blk_heap_addr]. }
  destruct (share_abs F s s' p (Z.of_N n) Hh (Rs _) (Rs _) Hp Hw) as [EQ W].
  exists s'. auto 7.
Qed.

Theorem x86_share_block_ok pos t n lc s sp p F :
  let cs := fst (x_share_block_n t n lc) in
  code_at im pos cs -> labels_at im pos cs ->
  frame_ok s sp -> loc_ok t -> lget s sp t = Some p ->
  (p = 0 \/ is_blk p) -> fits32 (Z.of_N n) = true ->
  (p <> 0 -> wrap (hword s p + Z.of_N n) = hword s p + Z.of_N n) ->
  exists s', steps im pos s (pnth pos (List.length cs)) s' /\
     st_eqB (abs_heap F s') (Heap.share p (Z.of_N n) (abs_heap F s)) /\
     same_but_temp s s' /\ frame_ok s' sp.
Proof.
  intros cs HC HL FR T P Hp Hn Hw.
  assert (Ha : p = 0 \/ heap_addr p) by (destruct Hp as [|Hb]; [now left|right; now apply blk_heap_addr]).
  assert (M : exists s', steps im pos s (pnth pos (List.length cs)) s' /\
            heap s' = (if p =? 0 then heap s else PM.add (key p) (wrap (hword s p + Z.of_N n)) (heap s)) /\
            same_but_temp s s').
  { destruct t as [r|q]; cbn [lget loc_ok] in *.
    - destruct (x86_share_reg_machine pos r n lc s p HC HL P Ha Hn) as (s' & ST & Hh & Rs & Stk & Out).
      exists s'. split; [exact ST|]. split; [exact Hh|]. split; [intros r' _; apply Rs|auto].
    - destruct (x86_share_spill_machine pos q n lc s sp p HC HL FR T P Ha Hn) as (s' & ST & Hh & Rs & Stk & Out).
      exists s'. split; [exact ST|]. split; [exact Hh|]. split; [exact Rs|auto]. }
  destruct M as (s' & ST & Hh & SB). pose proof SB as (Rs & _).
  destruct (share_abs F s s' p (Z.of_N n) Hh (Rs HEAP ltac:(discriminate)) (Rs FREE ltac:(discriminate)) Hp Hw) as [EQ _].
  exists s'. split; [exact ST|]. split; [exact EQ|]. split; [exact SB|].
  destruct FR as [A B]. split; [rewrite Rs by discriminate; exact A|exact B].
Qed.

Definition same_but_temp_free (s s' : xstate) : Prop :=
  (forall r, r <> TEMP -> r <> FREE -> rget s' r = rget s r) /\ stack s' = stack s /\ out s' = out s.

(* erase_block on the machine, the pointer in a register: a null pointer is skipped, a block with count 0 goes
   onto the deferred list (its header becomes the old FREE, FREE the block), otherwise the count drops by one
   modulo 2^64 *)
Lemma x86_erase_reg_machine pos r lc s p f :
  let cs := fst (x_erase_block (XR r) lc) in
  code_at im pos cs -> labels_at im pos cs ->
  rget s r = Some p -> rget s FREE = Some f -> (p = 0 \/ heap_addr p) ->
  exists s', steps im pos s (pnth pos (List.length cs)) s' /\
    heap s' = (if p =? 0 then heap s else if hword s p =? 0 then PM.add (key p) f (heap s)
               else PM.add (key p) (wrap (hword s p + -1)) (heap s)) /\
    rget s' FREE = Some (if p =? 0 then f else if hword s p =? 0 then p else f) /\
    (forall r', r' <> FREE -> rget s' r' = rget s r') /\ stack s' = stack s /\ out s' = out s.
Proof.
  intros cs HC HL P Hf Hp. unfold cs in *. clear cs.
  cbn [x_erase_block erase_valid_object if_zero_then_else skip_if_zero compare_immediate fst snd app List.length] in *.
  destruct (Z.eqb_spec p 0) as [->|Hp0].
  - exists (set_flags s (Some (0, 0))). split; [|split; [reflexivity|split; [exact Hf|split; [intros; reflexivity|split; reflexivity]]]].
    nxt HC 0%nat. { apply step_CMPI0. exact P. }
    jmp HC 1%nat. { rewrite (step_JEL im _ _ 0 0) by reflexivity. cbn [Z.eqb]. unfold goto_label. rewrite (HL 10%nat _ eq_refl). reflexivity. }
    nxt HC 10%nat. { reflexivity. }
    apply steps_refl.
  - destruct Hp as [|Ha]; [contradiction|].
    set (s1 := set_flags s (Some (p, 0))).
    set (s2 := set_flags s1 (Some (hword s p, 0))).
    destruct (Z.eqb_spec (hword s p) 0) as [Hh|Hh].
    + set (s3 := hset s2 p f).
      exists (rset s3 FREE (Some p)). split; [|split; [reflexivity|split; [apply rget_rset_same|split; [|split; reflexivity]]]].
      * nxt HC 0%nat. { apply step_CMPI0. exact P. }
        nxt HC 1%nat. { rewrite (step_JEL im _ _ p 0) by reflexivity. destruct (Z.eqb_spec p 0); [contradiction|reflexivity]. }
        nxt HC 2%nat. { change REFERENCE_COUNT_OFFSET with 0. eapply step_CMPIM0_heap; [exact P|exact Ha]. }
        jmp HC 3%nat. { rewrite (step_JEL im _ _ (hword s p) 0) by reflexivity. rewrite Hh. cbn [Z.eqb]. unfold goto_label. rewrite (HL 6%nat _ eq_refl). reflexivity. }
        nxt HC 6%nat. { reflexivity. }
        nxt HC 7%nat. { change NEXT_ELEMENT_OFFSET with 0. eapply step_MOVS_heap; [exact P|exact Ha|exact Hf]. }
        nxt HC 8%nat. { cbn [step]. reflexivity. }
        nxt HC 9%nat. { reflexivity. }
        nxt HC 10%nat. { reflexivity. }
        match goal with |- steps _ _ (rset _ FREE ?v) _ _ => change v with (rget s r) end. rewrite P. apply steps_refl.
      * intros r' Hr. rewrite rget_rset_other by congruence. reflexivity.
    + exists (set_flags (hset s2 p (wrap (hword s p + -1))) None).
      split; [|split; [reflexivity|split; [exact Hf|split; [intros; reflexivity|split; reflexivity]]]].
      nxt HC 0%nat. { apply step_CMPI0. exact P. }
      nxt HC 1%nat. { rewrite (step_JEL im _ _ p 0) by reflexivity. destruct (Z.eqb_spec p 0); [contradiction|reflexivity]. }
      nxt HC 2%nat. { change REFERENCE_COUNT_OFFSET with 0. eapply step_CMPIM0_heap; [exact P|exact Ha]. }
      nxt HC 3%nat. { rewrite (step_JEL im _ _ (hword s p) 0) by reflexivity. destruct (Z.eqb_spec (hword s p) 0); [contradiction|reflexivity]. }
      nxt HC 4%nat. { change REFERENCE_COUNT_OFFSET with 0. eapply step_ADDIM_heap; [exact P|exact Ha|reflexivity]. }
      jmp HC 5%nat. { cbn [step]. unfold goto_label. rewrite (HL 9%nat _ eq_refl). reflexivity. }
      nxt HC 9%nat. { reflexivity. }
      nxt HC 10%nat. { reflexivity. }
      apply steps_refl.
Qed.

(* what that is on the abstract side, for a block whose count does not wrap: no word other than the
   header of p changes *)
Lemma erase_abs F s s' p f :
  heap s' = (if p =? 0 then heap s else if hword s p =? 0 then PM.add (key p) f (heap s)
             else PM.add (key p) (wrap (hword s p + -1)) (heap s)) ->
  rget s' FREE = Some (if p =? 0 then f else if hword s p =? 0 then p else f) ->
  rget s' HEAP = rget s HEAP -> rget s FREE = Some f ->
  (p = 0 \/ is_blk p) ->
  (p <> 0 -> hword s p <> 0 -> wrap (hword s p + -1) = hword s p - 1) ->
  st_eqB (abs_heap F s') (Heap.erase p (abs_heap F s)) /\
  rget s' FREE = Some (Heap.free (Heap.erase p (abs_heap F s))) /\
  (forall a, ~ is_blk a -> hword s' a = hword s a).
Proof.
  intros Hh RF' RH Hf Hp Hw. unfold Heap.erase. change (Heap.hdr (Heap.m (abs_heap F s) p)) with (hword s p).
  assert (Ff : reg_or0 s FREE = f) by (unfold reg_or0; now rewrite Hf).
  assert (EH : reg_or0 s' HEAP = reg_or0 s HEAP) by (unfold reg_or0; now rewrite RH).
  assert (Mem : forall z, (forall a, hword s' a = hword (hset s p z) a) -> is_blk p ->
            forall x, is_blk x -> abs_mem s' x = Heap.set_hdr (abs_mem s) p z x).
  { intros z W Hb x Hx. rewrite <- (abs_mem_hset s p z x Hb Hx). unfold abs_mem. now rewrite !W. }
  destruct (p =? 0) eqn:E0.
  - apply Z.eqb_eq in E0. subst p.
    assert (W : forall a, hword s' a = hword s a) by (intros a; unfold hword; now rewrite Hh).
    split; [|split; [rewrite RF'; cbn [abs_heap Heap.free]; now rewrite Ff|intros a _; apply W]].
    split; [exact EH|]. split; [cbn [abs_heap Heap.free]; unfold reg_or0; now rewrite RF', Hf|]. split; [reflexivity|].
    intros x _. cbn [abs_heap Heap.m]. unfold abs_mem. now rewrite !W.
  - apply Z.eqb_neq in E0. destruct Hp as [|Hb]; [contradiction|].
    destruct (hword s p =? 0) eqn:E1.
    + assert (W : forall a, hword s' a = hword (hset s p f) a) by (intros a; unfold hword; now rewrite Hh).
      split; [|split; [exact RF'|intros a Ha; rewrite W; now apply hword_hset_nonblk]].
      split; [exact EH|]. split; [cbn [abs_heap Heap.free]; unfold reg_or0; now rewrite RF'|]. split; [reflexivity|].
      cbn [abs_heap Heap.m Heap.free]. rewrite Ff. now apply Mem.
    + apply Z.eqb_neq in E1. rewrite Hw in Hh by assumption.
      assert (W : forall a, hword s' a = hword (hset s p (hword s p - 1)) a) by (intros a; unfold hword; now rewrite Hh).
      split; [|split; [rewrite RF'; cbn [abs_heap Heap.free]; now rewrite Ff|intros a Ha; rewrite W; now apply hword_hset_nonblk]].
      split; [exact EH|]. split; [cbn [abs_heap Heap.free]; unfold reg_or0; now rewrite RF', Hf|]. split; [reflexivity|].
      cbn [abs_heap Heap.m]. now apply Mem.
Qed.

(* the pointer in a register *)
Lemma x86_erase_reg_frame pos r lc s sp p f F :
  let cs := fst (x_erase_block (XR r) lc) in
  code_at im pos cs -> labels_at im pos cs ->
  frame_ok s sp -> rget s r = Some p -> rget s FREE = Some f ->
  (p = 0 \/ is_blk p) ->
  (p <> 0 -> hword s p <> 0 -> wrap (hword s p + -1) = hword s p - 1) ->
  exists s', steps im pos s (pnth pos (List.length cs)) s' /\
     st_eqB (abs_heap F s') (Heap.erase p (abs_heap F s)) /\
     same_but_temp_free s s' /\ (frame_ok s' sp /\ rget s' FREE = Some (Heap.free (Heap.erase p (abs_heap F s)))) /\
     (forall a, ~ is_blk a -> hword s' a = hword s a).
Proof.
  intros cs HC HL FR P Hf Hp Hw.
  destruct (x86_erase_reg_machine pos r lc s p f HC HL P Hf) as (s' & ST & Hh & RF' & Rs & Stk & Out).
  { destruct Hp as [|Hb]; [now left|right; now apply blk_heap_addr]. }
  destruct (erase_abs F s s' p f Hh RF' (Rs HEAP ltac:(discriminate)) Hf Hp Hw) as (EQ & FF & NB).
  exists s'. split; [exact ST|]. split; [exact EQ|]. split; [|split; [split; [|exact FF]|exact NB]].
  - split; [intros r' _ Hr; now apply Rs|auto].
  - destruct FR as [A B]. split; [rewrite Rs by discriminate; exact A|exact B].
Qed.

Lemma abs_heap_rset F s r v : r <> HEAP -> r <> FREE -> abs_heap F (rset s r v) = abs_heap F s.
Proof. intros A B. unfold abs_heap, reg_or0. now rewrite !rget_rset_other by assumption. Qed.

(* an instruction that loads p into the scratch register, then erase_block on the scratch register *)
Lemma x86_erase_loaded pos i lc s sp p f F :
  let cs := i :: fst (x_erase_block (XR TEMP) lc) in
  code_at im pos cs -> labels_at im pos cs ->
  step im i s = Next (rset s TEMP (Some p)) ->
  frame_ok s sp -> rget s FREE = Some f ->
  (p = 0 \/ is_blk p) ->
  (p <> 0 -> hword s p <> 0 -> wrap (hword s p + -1) = hword s p - 1) ->
  exists s', steps im pos s (pnth pos (List.length cs)) s' /\
     st_eqB (abs_heap F s') (Heap.erase p (abs_heap F s)) /\
     same_but_temp_free s s' /\ (frame_ok s' sp /\ rget s' FREE = Some (Heap.free (Heap.erase p (abs_heap F s)))) /\
     (forall a, ~ is_blk a -> hword s' a = hword s a).
Proof.
  intros cs HC HL Hi FR Hf Hp Hw.
  set (s0 := rset s TEMP (Some p)) in *.
  assert (F0 : frame_ok s0 sp) by (apply frame_ok_rset; [discriminate|exact FR]).
  assert (HC1 : code_at im (pnth pos 1) (fst (x_erase_block (XR TEMP) lc))) by (intros n x Hn; rewrite pnth_add; apply HC; exact Hn).
  assert (HL1 : labels_at im (pnth pos 1) (fst (x_erase_block (XR TEMP) lc))) by (intros n x Hn; rewrite pnth_add; apply HL; exact Hn).
  destruct (x86_erase_reg_frame (pnth pos 1) TEMP lc s0 sp p f F HC1 HL1 F0 ltac:(apply rget_rset_same)
              ltac:(unfold s0; rewrite rget_rset_other by discriminate; exact Hf) Hp Hw)
    as (s' & ST & EQ & (SB1 & SB2 & SB3) & (FR' & FREE') & NB).
  assert (E0 : st_eqB (Heap.erase p (abs_heap F s0)) (Heap.erase p (abs_heap F s))).
  { apply erase_st_eqB; [|exact Hp]. unfold s0. rewrite abs_heap_rset by discriminate. apply st_eqB_refl. }
  exists s'. split; [|split; [|split; [|split; [split|]]]].
  - eapply steps_next; [apply (HC 0%nat); reflexivity|exact Hi|]. exact ST.
  - eapply st_eqB_trans; [exact EQ|exact E0].
  - split; [|split; [exact SB2|exact SB3]]. intros r' H1 H2. rewrite SB1 by auto. apply rget_rset_other. congruence.
  - exact FR'.
  - rewrite FREE'. f_equal. destruct E0 as (_ & E & _). exact E.
  - exact NB.
Qed.

(* the pointer in a register or in a spill slot (then it is first loaded into the scratch register) *)
Theorem x86_erase_block_ok pos t lc s sp p f F :
  let cs := fst (x_erase_block t lc) in
  code_at im pos cs -> labels_at im pos cs ->
  frame_ok s sp -> loc_ok t -> lget s sp t = Some p -> rget s FREE = Some f ->
  (p = 0 \/ is_blk p) ->
  (p <> 0 -> hword s p <> 0 -> wrap (hword s p + -1) = hword s p - 1) ->
  exists s', steps im pos s (pnth pos (List.length cs)) s' /\
     st_eqB (abs_heap F s') (Heap.erase p (abs_heap F s)) /\
     same_but_temp_free s s' /\ (frame_ok s' sp /\ rget s' FREE = Some (Heap.free (Heap.erase p (abs_heap F s)))).
Proof.
  intros cs HC HL FR T P Hf Hp Hw. destruct t as [r|q]; cbn [lget loc_ok] in *.
  - destruct (x86_erase_reg_frame pos r lc s sp p f F HC HL FR P Hf Hp Hw) as (s' & ST & EQ & SB & FF & _).
    exists s'. auto.
  - destruct (x86_erase_loaded pos (MOVL TEMP STACK (stack_offset q)) lc s sp p f F HC HL) as (s' & ST & EQ & SB & FF & _); auto.
    { rewrite (step_MOVL_slot im s sp FR) by exact T. now rewrite P. }
    exists s'. auto.
Qed.

Lemma step_MOVL_heap s a b i p :
  rget s b = Some p -> heap_addr (p + i) -> step im (MOVL a b i) s = Next (rset s a (Some (hword s (p + i)))).
Proof. intros R H. cbn [step]. rewrite (ea_heap s b i p) by auto. unfold withm. now rewrite mload_heap. Qed.
Lemma step_MOVIM_heap s a p j :
  rget s a = Some p -> heap_addr p -> fits32 j = true -> step im (MOVIM a 0 j) s = Next (hset s p j).
Proof.
  intros R H J. cbn [step]. rewrite J, (ea_heap s a 0 p) by (auto; now rewrite Z.add_0_r).
  rewrite Z.add_0_r. unfold withm. now rewrite mstore_heap.
Qed.
Lemma step_ADDI s a x i :
  rget s a = Some x -> fits32 i = true -> step im (ADDI a i) s = Next (set_flags (rset s a (Some (wrap (x + i)))) None).
Proof. intros R J. cbn [step]. rewrite J. unfold need. now rewrite R. Qed.

Lemma x86_release_block_frame pos r s p h F :
  code_at im pos (release_block r) ->
  rget s r = Some p -> rget s HEAP = Some h -> is_blk p ->
  exists s', steps im pos s (pnth pos 2) s' /\
     st_eqB (abs_heap F s') (Heap.release p (abs_heap F s)) /\
     (forall r', r' <> HEAP -> rget s' r' = rget s r') /\ rget s' HEAP = Some p /\ stack s' = stack s /\ out s' = out s /\
     (forall a, hword s' a = if a =? p then h else hword s a).
Proof.
  intros HC P Hh Hb. pose proof (blk_heap_addr p Hb) as Ha. unfold release_block in HC.
  exists (rset (hset s p h) HEAP (Some p)). split; [|split; [|split; [|split; [|split; [|split]]]]]; try reflexivity.
  - nxt HC 0%nat. { change NEXT_ELEMENT_OFFSET with 0. eapply step_MOVS_heap; [exact P|exact Ha|exact Hh]. }
    nxt HC 1%nat. { cbn [step]. reflexivity. }
    change (rget (hset s p h) r) with (rget s r). rewrite P. apply steps_refl.
  - unfold Heap.release. split; [|split; [|split; [reflexivity|]]].
    + cbn [abs_heap Heap.heap]. unfold reg_or0. now rewrite rget_rset_same.
    + cbn [abs_heap Heap.free]. unfold reg_or0. now rewrite rget_rset_other by discriminate.
    + intros x Hx. cbn [abs_heap Heap.m Heap.heap]. unfold reg_or0 at 1. rewrite Hh.
      change (abs_mem (rset (hset s p h) HEAP (Some p)) x) with (abs_mem (hset s p h) x). now apply abs_mem_hset.
  - intros r' Hr. rewrite rget_rset_other by congruence. reflexivity.
  - apply rget_rset_same.
  - intros a. rewrite hword_rset. now apply hword_hset_blk.
Qed.

Theorem x86_release_block_ok pos r s p h F :
  code_at im pos (release_block r) ->
  rget s r = Some p -> rget s HEAP = Some h -> is_blk p ->
  exists s', steps im pos s (pnth pos 2) s' /\
     st_eqB (abs_heap F s') (Heap.release p (abs_heap F s)) /\
     (forall r', r' <> HEAP -> rget s' r' = rget s r') /\ stack s' = stack s /\ out s' = out s.
Proof.
  intros HC P Hh Hb.
  destruct (x86_release_block_frame pos r s p h F HC P Hh Hb) as (s' & ST & EQ & Rs & _ & Stk & Out & _).
  exists s'. auto.
Qed.

Lemma erase_hdr_cases a p x :
  Heap.hdr (Heap.m (Heap.erase p a) x) = Heap.hdr (Heap.m a x) \/
  Heap.hdr (Heap.m (Heap.erase p a) x) = Heap.hdr (Heap.m a x) - 1 \/
  Heap.hdr (Heap.m (Heap.erase p a) x) = Heap.free a.
Proof.
  unfold Heap.erase. destruct (p =? 0); auto. destruct (Heap.hdr (Heap.m a p) =? 0); cbn; unfold Heap.set_hdr, Heap.upd;
    destruct (Z.eqb_spec x p); subst; cbn; auto.
Qed.
Lemma erase_free_cases a p : Heap.free (Heap.erase p a) = Heap.free a \/ Heap.free (Heap.erase p a) = p.
Proof. unfold Heap.erase. destruct (p =? 0); auto. destruct (Heap.hdr (Heap.m a p) =? 0); cbn; auto. Qed.

(* all headers and the free pointer at least k above the smallest 64-bit integer *)
Definition bounded (k : Z) (s : xstate) (f : Z) : Prop :=
  (forall x, is_blk x -> min_int + k <= hword s x <= max_int) /\ min_int + k <= f <= max_int.
Lemma is_blk_range x : is_blk x -> min_int + 3 <= x <= max_int.
Proof. intros (k & Hk & -> & H). unfold min_int, max_int, two63, HEAP_BASE, HEAP_SIZE in *. lia. Qed.

Lemma bounded_after_erase F k s f s' c :
  bounded (k + 1) s f -> 0 <= k <= 2 -> Heap.free (abs_heap F s) = f -> (c = 0 \/ is_blk c) ->
  st_eqB (abs_heap F s') (Heap.erase c (abs_heap F s)) ->
  bounded k s' (Heap.free (Heap.erase c (abs_heap F s))).
Proof.
  intros [B1 B2] Hk Hf Hc (_ & _ & _ & E). split.
  - intros x Hx. change (hword s' x) with (Heap.hdr (Heap.m (abs_heap F s') x)). rewrite (E x Hx).
    specialize (B1 x Hx). change (hword s x) with (Heap.hdr (Heap.m (abs_heap F s) x)) in B1.
    destruct (erase_hdr_cases (abs_heap F s) c x) as [->|[->| ->]]; rewrite ?Hf; lia.
  - destruct (erase_free_cases (abs_heap F s) c) as [->| ->]; [rewrite Hf; lia|].
    destruct Hc as [->|Hb]; [unfold min_int, max_int, two63; lia|]. pose proof (is_blk_range c Hb). lia.
Qed.

(* the code of erase_fields: a load and an erase_block per child (offset, label counter) *)
Definition erase_children (offs : list (Z * N)) : list xcode :=
  flat_map (fun ol : Z * N => MOVL TEMP HEAP (fst ol) :: fst (x_erase_block (XR TEMP) (snd ol))) offs.

Lemma x86_erase_children_ok F sp h2 : forall offs pos s f A,
  code_at im pos (erase_children offs) -> labels_at im pos (erase_children offs) ->
  Forall (fun ol : Z * N => fst ol = 16 \/ fst ol = 32 \/ fst ol = 48) offs -> (List.length offs <= 3)%nat ->
  frame_ok s sp -> rget s HEAP = Some h2 -> is_blk h2 -> rget s FREE = Some f ->
  Forall (fun ol : Z * N => hword s (h2 + fst ol) = 0 \/ is_blk (hword s (h2 + fst ol))) offs ->
  bounded (Z.of_nat (List.length offs)) s f ->
  st_eqB (abs_heap F s) A ->
  exists s', steps im pos s (pnth pos (List.length (erase_children offs))) s' /\
    st_eqB (abs_heap F s') (fold_left (fun a c => Heap.erase c a) (map (fun ol : Z * N => hword s (h2 + fst ol)) offs) A) /\
    same_but_temp_free s s' /\ frame_ok s' sp /\ (forall a, ~ is_blk a -> hword s' a = hword s a).
Proof.
  induction offs as [|[off lc] offs IH]; intros pos s f A HC HL Hoffs Hlen FR Hh Hb Hf Hkids Bd EA.
  - exists s. split; [apply steps_refl|]. split; [exact EA|]. split; [repeat split; reflexivity|]. split; [exact FR|reflexivity].
  - (* the slots of the block at h2 are not block headers: the erasures leave them alone *)
    assert (NBo : forall o, 0 < o < 64 -> ~ is_blk (h2 + o)).
    { intros o Ho (j & Hj & E & _). destruct Hb as (k & Hk & -> & _). lia. }
    cbn [erase_children flat_map] in HC, HL |- *. fold (erase_children offs) in HC, HL |- *.
    change (MOVL TEMP HEAP (fst (off, lc)) :: fst (x_erase_block (XR TEMP) (snd (off, lc))) ++ erase_children offs)
      with ((MOVL TEMP HEAP off :: fst (x_erase_block (XR TEMP) lc)) ++ erase_children offs) in *.
    apply code_at_app2 in HC as [HC1 HC2]. apply labels_at_app2 in HL as [HL1 HL2].
    inversion Hoffs as [|? ? Ho Hoffs']; subst. inversion Hkids as [|? ? Hk Hkids']; subst. cbn [fst] in Ho, Hk.
    cbn [List.length] in Hlen, Bd.
    set (c := hword s (h2 + off)) in *.
    destruct (x86_erase_loaded pos (MOVL TEMP HEAP off) lc s sp c f F HC1 HL1) as (s1 & ST1 & EQ1 & (R1 & Stk1 & O1) & (FR1 & FREE1) & NB1); auto.
    { eapply step_MOVL_heap; [exact Hh|]. apply is_blk_addr; [exact Hb|tauto]. }
    { intros Hc0 _. apply wrap_id. destruct Hk as [Hk|Kb]; [contradiction|]. pose proof (proj1 Bd c Kb) as Bc. lia. }
    assert (Bd1 : bounded (Z.of_nat (List.length offs)) s1 (Heap.free (Heap.erase c (abs_heap F s)))).
    { apply (bounded_after_erase F _ s f s1 c); [|lia| |exact Hk|exact EQ1].
      - replace (Z.of_nat (List.length offs) + 1) with (Z.of_nat (S (List.length offs))) by lia. exact Bd.
      - cbn [abs_heap Heap.free]. unfold reg_or0. now rewrite Hf. }
    destruct (IH _ s1 _ (Heap.erase c A) HC2 HL2 Hoffs' ltac:(lia) FR1 ltac:(rewrite R1 by discriminate; exact Hh) Hb FREE1)
      as (s' & ST2 & EQ2 & (R2 & Stk2 & O2) & FR2 & NB2).
    { apply Forall_forall. intros ol Hin. rewrite Forall_forall in Hoffs', Hkids'.
      rewrite NB1 by (apply NBo; specialize (Hoffs' ol Hin); lia). exact (Hkids' ol Hin). }
    { exact Bd1. }
    { eapply st_eqB_trans; [exact EQ1|]. apply erase_st_eqB; [exact EA|exact Hk]. }
    exists s'. split; [eapply steps_app_len; eassumption|]. split; [|split; [|split; [exact FR2|]]].
    + cbn [map fold_left fst]. fold c.
      rewrite (map_ext_in _ (fun ol : Z * N => hword s1 (h2 + fst ol))); [exact EQ2|].
      intros ol Hin. rewrite Forall_forall in Hoffs'. symmetry. apply NB1, NBo. specialize (Hoffs' ol Hin). lia.
    + split; [|split; congruence]. intros r A1 B1. rewrite R2, R1 by assumption. reflexivity.
    + intros a Ha. rewrite NB2, NB1 by exact Ha. reflexivity.
Qed.

(* The code of acquire_block after the copy of HEAP to the new location: the register b still holds the
   acquired block (the new location itself, or the scratch register when that is a spill slot). *)
Definition acquire_tail (b : reg) (lc : N) : list xcode :=
  let '(ef, lc1) := erase_fields HEAP lc in
  let '(inner, lc2) := if_zero_then_else FREE None [MOV FREE HEAP; ADDI FREE (field_offset Fst FIELDS_PER_BLOCK)]
                                          ([MOVIM HEAP NEXT_ELEMENT_OFFSET 0] ++ ef) lc1 in
  MOVL HEAP HEAP NEXT_ELEMENT_OFFSET ::
  fst (if_zero_then_else HEAP None ([MOV HEAP FREE; MOVL FREE FREE NEXT_ELEMENT_OFFSET] ++ inner)
                         [MOVIM b REFERENCE_COUNT_OFFSET 0] lc2).
Lemma acquire_block_reg r lc : fst (acquire_block (XR r) lc) = MOV r HEAP :: acquire_tail r lc.
Proof. reflexivity. Qed.
Lemma acquire_block_spill q lc :
  fst (acquire_block (XS q) lc) = MOV TEMP HEAP :: MOVS HEAP STACK (stack_offset q) :: acquire_tail TEMP lc.
Proof. reflexivity. Qed.

(* all three cases: the free list is not empty; it is empty and so is the deferred list (bump the
   frontier); the first deferred block is recycled and its three children are erased *)
Lemma x86_acquire_tail_ok pos b lc s sp rv h2 F :
  let cs := acquire_tail b lc in
  code_at im pos cs -> labels_at im pos cs ->
  frame_ok s sp -> b <> HEAP ->
  rget s b = Some rv -> rget s HEAP = Some rv -> is_blk rv -> rget s FREE = Some h2 ->
  (hword s rv = 0 -> is_blk h2) ->
  (hword s rv = 0 -> hword s h2 <> 0 ->
     (forall off, off = 16 \/ off = 32 \/ off = 48 -> hword s (h2 + off) = 0 \/ is_blk (hword s (h2 + off))) /\
     bounded 3 s (hword s h2)) ->
  exists s', steps im pos s (pnth pos (List.length cs)) s' /\
    st_eqB (abs_heap (Heap.frontier (snd (Heap.acquire (abs_heap F s)))) s') (snd (Heap.acquire (abs_heap F s))) /\
    fst (Heap.acquire (abs_heap F s)) = rv /\
    (forall r', r' <> TEMP -> r' <> HEAP -> r' <> FREE -> rget s' r' = rget s r') /\
    stack s' = stack s /\ out s' = out s /\ frame_ok s' sp /\
    (forall a, ~ is_blk a -> hword s' a = hword s a).
Proof.
  intros cs HC HL FR BH Pb Hh Hb Hf Hb2 Hch. unfold cs in *. clear cs.
  unfold acquire_tail, erase_fields in *. change (nseq 0 FIELDS_PER_BLOCK) with [0;1;2]%N in *.
  cbn [fold_left x_erase_block erase_valid_object if_zero_then_else skip_if_zero compare_immediate fst snd app List.length] in *.
  assert (HA : Heap.heap (abs_heap F s) = rv) by (unfold abs_heap, reg_or0; cbn [Heap.heap]; now rewrite Hh).
  assert (FA : Heap.free (abs_heap F s) = h2) by (unfold abs_heap, reg_or0; cbn [Heap.free]; now rewrite Hf).
  pose proof (blk_heap_addr rv Hb) as Ha.
  set (s2 := rset s HEAP (Some (hword s rv))).
  set (s3 := set_flags s2 (Some (hword s rv, 0))).
  assert (ST3 : forall pc' s', steps im (pnth pos 2) s3 pc' s' -> steps im pos s pc' s').
  { intros pc' s' H.
    nxt HC 0%nat. { change NEXT_ELEMENT_OFFSET with 0. eapply step_MOVL_heap; [exact Hh|rewrite Z.add_0_r; exact Ha]. }
    nxt HC 1%nat. { apply step_CMPI0. rewrite Z.add_0_r. apply rget_rset_same. }
    rewrite Z.add_0_r. exact H. }
  unfold Heap.acquire. rewrite HA, FA.
  change (Heap.hdr (Heap.m (abs_heap F s) rv)) with (hword s rv).
  change (Heap.hdr (Heap.m (abs_heap F s) h2)) with (hword s h2).
  destruct (Z.eqb_spec (hword s rv) 0) as [H0|Hn0]; cbn [negb].
  2:{ exists (hset s3 rv 0). split; [|split; [|split; [|split; [|split; [|split; [|split]]]]]].
    - apply ST3.
      nxt HC 2%nat. { rewrite (step_JEL im _ _ (hword s rv) 0) by reflexivity. destruct (Z.eqb_spec (hword s rv) 0); [contradiction|reflexivity]. }
      nxt HC 3%nat. { change REFERENCE_COUNT_OFFSET with 0. eapply step_MOVIM_heap; [|exact Ha|reflexivity].
        unfold s3, s2. rewrite rget_set_flags, rget_rset_other by congruence. exact Pb. }
      jmp HC 4%nat. { cbn [step]. unfold goto_label. rewrite (HL 52%nat _ eq_refl). reflexivity. }
      nxt HC 52%nat. { reflexivity. }
      apply steps_refl.
    - cbn [snd Heap.frontier]. split; [|split; [|split; [reflexivity|]]].
      + cbn [abs_heap Heap.heap]. unfold reg_or0. rewrite rget_hset. unfold s3, s2. rewrite rget_set_flags, rget_rset_same. reflexivity.
      + cbn [abs_heap Heap.free]. unfold reg_or0. rewrite rget_hset. unfold s3, s2. rewrite rget_set_flags, rget_rset_other by discriminate. now rewrite Hf.
      + intros x Hx. cbn [abs_heap Heap.m]. change (abs_mem (hset s3 rv 0) x) with (abs_mem (hset s rv 0) x). now apply abs_mem_hset.
    - reflexivity.
    - intros r' A C D. rewrite rget_hset. unfold s3, s2. rewrite rget_set_flags, rget_rset_other by congruence. reflexivity.
    - reflexivity.
    - reflexivity.
    - apply frame_ok_hset, frame_ok_set_flags. unfold s2. apply frame_ok_rset; [discriminate|exact FR].
    - intros a Hnb. exact (hword_hset_nonblk s rv 0 a Hb Hnb). }
  pose proof (Hb2 H0) as Hbh2. pose proof (blk_heap_addr h2 Hbh2) as Ha2.
  set (s4 := rset s3 HEAP (Some h2)).
  set (s5 := rset s4 FREE (Some (hword s h2))).
  set (s6 := set_flags s5 (Some (hword s h2, 0))).
  assert (P3F : rget s3 FREE = Some h2).
  { unfold s3, s2. rewrite rget_set_flags, rget_rset_other by discriminate. exact Hf. }
  assert (P4F : rget s4 FREE = Some h2) by (unfold s4; rewrite rget_rset_other by discriminate; exact P3F).
  assert (ST6 : forall pc' s', steps im (pnth pos 9) s6 pc' s' -> steps im pos s pc' s').
  { intros pc' s' H. apply ST3.
    jmp HC 2%nat. { rewrite (step_JEL im _ _ (hword s rv) 0) by reflexivity. rewrite H0. cbn [Z.eqb]. unfold goto_label. rewrite (HL 5%nat _ eq_refl). reflexivity. }
    nxt HC 5%nat. { reflexivity. }
    nxt HC 6%nat. { cbn [step]. rewrite P3F. reflexivity. }
    nxt HC 7%nat. { change NEXT_ELEMENT_OFFSET with 0. eapply step_MOVL_heap; [exact P4F|rewrite Z.add_0_r; exact Ha2]. }
    nxt HC 8%nat. { apply step_CMPI0. rewrite Z.add_0_r. apply rget_rset_same. }
    rewrite Z.add_0_r. exact H. }
  assert (P6H : rget s6 HEAP = Some h2).
  { unfold s6, s5. rg. apply rget_rset_same. }
  assert (P6o : forall r', r' <> TEMP -> r' <> HEAP -> r' <> FREE -> rget s6 r' = rget s r').
  { intros r' B C D. unfold s6, s5, s4, s3, s2. rg. reflexivity. }
  assert (F6 : frame_ok s6 sp).
  { unfold s6, s5, s4, s3, s2. repeat first [apply frame_ok_set_flags | apply frame_ok_rset; [discriminate|]]. exact FR. }
  destruct (Z.eqb_spec (hword s h2) 0) as [Hf0|Hfn].
  - set (s7 := rset s6 FREE (Some h2)).
    exists (set_flags (rset s7 FREE (Some (wrap (h2 + 64)))) None).
    assert (W : wrap (h2 + 64) = h2 + 64).
    { apply wrap_id. destruct Hbh2 as (k & Hk & -> & Hhi). unfold min_int, max_int, two63, HEAP_BASE, HEAP_SIZE in *. lia. }
    split; [|split; [|split; [|split; [|split; [|split; [|split]]]]]].
    + apply ST6.
      jmp HC 9%nat. { rewrite (step_JEL im _ _ (hword s h2) 0) by reflexivity. rewrite Hf0. cbn [Z.eqb]. unfold goto_label. rewrite (HL 48%nat _ eq_refl). reflexivity. }
      nxt HC 48%nat. { reflexivity. }
      nxt HC 49%nat. { cbn [step]. rewrite P6H. reflexivity. }
      nxt HC 50%nat. { eapply step_ADDI; [apply rget_rset_same|reflexivity]. }
      nxt HC 51%nat. { reflexivity. }
      nxt HC 52%nat. { reflexivity. }
      apply steps_refl.
    + cbn [snd Heap.frontier]. split; [|split; [|split; [reflexivity|intros; reflexivity]]].
      * cbn [abs_heap Heap.heap]. unfold reg_or0. rewrite rget_set_flags, rget_rset_other by discriminate. unfold s7. rewrite rget_rset_other by discriminate. now rewrite P6H.
      * cbn [abs_heap Heap.free]. unfold reg_or0. rewrite rget_set_flags, rget_rset_same. exact W.
    + reflexivity.
    + intros r' B C D. rewrite rget_set_flags. unfold s7. rewrite !rget_rset_other by congruence. now apply P6o.
    + reflexivity.
    + reflexivity.
    + apply frame_ok_set_flags. unfold s7. do 2 (apply frame_ok_rset; [discriminate|]). exact F6.
    + reflexivity.
  - destruct (Hch H0 Hfn) as [Hkids [B1 B2]].
    set (f' := hword s h2) in *.
    set (sm := hset s6 h2 0).
    pose proof (is_blk_nonneg h2 Hbh2) as Hh2nn.
    assert (Wm : forall x, 0 <= x -> x <> h2 -> hword sm x = hword s x).
    { intros x A B. unfold sm. rewrite hword_hset_other by auto. reflexivity. }
    assert (PmH : rget sm HEAP = Some h2) by exact P6H.
    assert (PmF : rget sm FREE = Some f') by (unfold sm, s6, s5; rg; apply rget_rset_same).
    assert (Fm : frame_ok sm sp) by (apply frame_ok_hset; exact F6).
    assert (Bm : bounded 3 sm f').
    { split; [|exact B2]. intros x Hx. destruct (Z.eq_dec x h2) as [->|Hne].
      - unfold sm. rewrite hword_hset_same. unfold min_int, max_int, two63. lia.
      - rewrite Wm by (auto using is_blk_nonneg). now apply B1. }
    set (a1 := {| Heap.m := Heap.set_hdr (Heap.m (abs_heap F s)) h2 0; Heap.heap := h2; Heap.free := f'; Heap.frontier := Heap.frontier (abs_heap F s) |}).
    assert (Em : st_eqB (abs_heap F sm) a1).
    { unfold a1. split; [|split; [|split; [reflexivity|]]].
      - cbn [abs_heap Heap.heap]. unfold reg_or0. now rewrite PmH.
      - cbn [abs_heap Heap.free]. unfold reg_or0. now rewrite PmF.
      - intros x Hx. cbn [abs_heap Heap.m]. change (abs_mem sm x) with (abs_mem (hset s h2 0) x). now apply abs_mem_hset. }
    set (c1 := hword s (h2 + 16)). set (c2 := hword s (h2 + 32)). set (c3 := hword s (h2 + 48)).
    assert (Cm : hword sm (h2 + 16) = c1 /\ hword sm (h2 + 32) = c2 /\ hword sm (h2 + 48) = c3).
    { repeat split; apply Wm; lia. }
    destruct Cm as (Cm1 & Cm2 & Cm3).
    set (offs := [(16, lc); (32, (lc + 2 + 1)%N); (48, (lc + 2 + 1 + 2 + 1)%N)]).
    assert (HCc : code_at im (pnth pos 11) (erase_children offs)) by (apply (code_at_slice _ _ _ 11 _ HC); reflexivity).
    assert (HLc : labels_at im (pnth pos 11) (erase_children offs)) by (apply (labels_at_slice _ _ _ 11 _ HL); reflexivity).
    assert (Hoffs : Forall (fun ol : Z * N => fst ol = 16 \/ fst ol = 32 \/ fst ol = 48) offs)
      by (repeat (apply Forall_cons; [cbn [fst]; auto|]); apply Forall_nil).
    assert (Hk3 : Forall (fun ol : Z * N => hword sm (h2 + fst ol) = 0 \/ is_blk (hword sm (h2 + fst ol))) offs).
    { repeat (apply Forall_cons; [cbn [fst]; rewrite ?Cm1, ?Cm2, ?Cm3; apply Hkids; auto|]). apply Forall_nil. }
    destruct (x86_erase_children_ok F sp h2 offs (pnth pos 11) sm f' a1 HCc HLc Hoffs (le_n 3) Fm PmH Hbh2 PmF Hk3 Bm Em)
      as (se3 & STe & EQ3' & (R3 & Stk3 & O3) & FR3 & NB3).
    cbn [offs map fold_left fst] in EQ3'. rewrite Cm1, Cm2, Cm3 in EQ3'.
    exists se3. split; [|split; [|split; [|split; [|split; [|split; [|split]]]]]].
    + apply ST6.
      nxt HC 9%nat. { rewrite (step_JEL im _ _ (hword s h2) 0) by reflexivity. fold f'. destruct (Z.eqb_spec f' 0); [contradiction|reflexivity]. }
      nxt HC 10%nat. { change NEXT_ELEMENT_OFFSET with 0. eapply step_MOVIM_heap; [exact P6H|exact Ha2|reflexivity]. }
      fold sm.
      eapply steps_trans; [exact STe|].
      jmp HC 47%nat. { cbn [step]. unfold goto_label. rewrite (HL 51%nat _ eq_refl). reflexivity. }
      nxt HC 51%nat. { reflexivity. }
      nxt HC 52%nat. { reflexivity. }
      apply steps_refl.
    + cbn [snd]. cbn [abs_heap Heap.m abs_mem Heap.ps fold_left]. fold c1 c2 c3. fold f'.
      assert (FE : Heap.frontier (Heap.erase c3 (Heap.erase c2 (Heap.erase c1 a1))) = F).
      { destruct EQ3' as (_ & _ & E & _). rewrite <- E. reflexivity. }
      change {| Heap.m := Heap.set_hdr (abs_mem s) h2 0; Heap.heap := h2; Heap.free := f'; Heap.frontier := F |} with a1.
      rewrite FE. exact EQ3'.
    + reflexivity.
    + intros r' B C D. rewrite R3 by assumption. unfold sm. rewrite rget_hset. now apply P6o.
    + rewrite Stk3. reflexivity.
    + rewrite O3. reflexivity.
    + exact FR3.
    + intros a Hnb. rewrite NB3 by exact Hnb. exact (hword_hset_nonblk s h2 0 a Hbh2 Hnb).
Qed.

Theorem x86_acquire_block_reg_frame pos r lc s sp rv h2 F :
  let cs := fst (acquire_block (XR r) lc) in
  code_at im pos cs -> labels_at im pos cs ->
  frame_ok s sp -> r <> 0%N -> r <> HEAP -> r <> FREE -> r <> TEMP ->
  rget s HEAP = Some rv -> is_blk rv -> rget s FREE = Some h2 ->
  (hword s rv = 0 -> is_blk h2) ->
  (hword s rv = 0 -> hword s h2 <> 0 ->
     (forall off, off = 16 \/ off = 32 \/ off = 48 -> hword s (h2 + off) = 0 \/ is_blk (hword s (h2 + off))) /\
     bounded 3 s (hword s h2)) ->
  exists s', steps im pos s (pnth pos (List.length cs)) s' /\
    st_eqB (abs_heap (Heap.frontier (snd (Heap.acquire (abs_heap F s)))) s') (snd (Heap.acquire (abs_heap F s))) /\
    rget s' r = Some rv /\ fst (Heap.acquire (abs_heap F s)) = rv /\
    (forall r', r' <> r -> r' <> TEMP -> r' <> HEAP -> r' <> FREE -> rget s' r' = rget s r') /\
    stack s' = stack s /\ out s' = out s /\ frame_ok s' sp /\
    (forall a, ~ is_blk a -> hword s' a = hword s a).
Proof.
  intros cs HC HL FR R0 RH RF RT Hh Hb Hf Hb2 Hch. unfold cs in *. clear cs. rewrite acquire_block_reg in *.
  set (s1 := rset s r (Some rv)).
  destruct (x86_acquire_tail_ok (pnth pos 1) r lc s1 sp rv h2 F) as (s' & ST & EQ & Ef & Oth & Stk & Out & FR' & NB).
  { intros n c Hn. rewrite pnth_add. apply HC. exact Hn. }
  { intros n c Hn. rewrite pnth_add. apply HL. exact Hn. }
  { apply frame_ok_rset; assumption. }
  { exact RH. }
  { apply rget_rset_same. }
  { unfold s1. rewrite rget_rset_other by congruence. exact Hh. }
  { exact Hb. }
  { unfold s1. rewrite rget_rset_other by congruence. exact Hf. }
  { exact Hb2. }
  { exact Hch. }
  unfold s1 in EQ, Ef. rewrite abs_heap_rset in EQ, Ef by assumption.
  exists s'. split; [|split; [exact EQ|split; [|split; [exact Ef|split; [|split; [exact Stk|split; [exact Out|split; [exact FR'|exact NB]]]]]]]].
  - eapply steps_next; [apply (HC 0%nat); reflexivity|cbn [step]; rewrite Hh; reflexivity|]. exact ST.
  - rewrite Oth by assumption. apply rget_rset_same.
  - intros r' A B C D. rewrite Oth by assumption. apply rget_rset_other. congruence.
Qed.

Theorem x86_acquire_block_reg_ok pos r lc s sp rv h2 F :
  let cs := fst (acquire_block (XR r) lc) in
  code_at im pos cs -> labels_at im pos cs ->
  frame_ok s sp -> r <> 0%N -> r <> HEAP -> r <> FREE -> r <> TEMP ->
  rget s HEAP = Some rv -> is_blk rv -> rget s FREE = Some h2 ->
  (hword s rv = 0 -> is_blk h2) ->
  (hword s rv = 0 -> hword s h2 <> 0 ->
     (forall off, off = 16 \/ off = 32 \/ off = 48 -> hword s (h2 + off) = 0 \/ is_blk (hword s (h2 + off))) /\
     bounded 3 s (hword s h2)) ->
  exists s', steps im pos s (pnth pos (List.length cs)) s' /\
    st_eqB (abs_heap (Heap.frontier (snd (Heap.acquire (abs_heap F s)))) s') (snd (Heap.acquire (abs_heap F s))) /\
    rget s' r = Some rv /\ fst (Heap.acquire (abs_heap F s)) = rv /\
    (forall r', r' <> r -> r' <> TEMP -> r' <> HEAP -> r' <> FREE -> rget s' r' = rget s r') /\
    stack s' = stack s /\ out s' = out s /\ frame_ok s' sp.
Proof.
  intros cs HC HL FR R0 RH RF RT Hh Hb Hf Hb2 Hch.
  destruct (x86_acquire_block_reg_frame pos r lc s sp rv h2 F HC HL FR R0 RH RF RT Hh Hb Hf Hb2 Hch)
    as (s' & ST & EQ & Rr & Ef & Oth & Stk & Out & FR' & _).
  exists s'. auto 9.
Qed.

Theorem x86_acquire_block_spill_frame pos q lc s sp rv h2 F :
  let cs := fst (acquire_block (XS q) lc) in
  code_at im pos cs -> labels_at im pos cs ->
  frame_ok s sp -> slot_ok q ->
  rget s HEAP = Some rv -> is_blk rv -> rget s FREE = Some h2 ->
  (hword s rv = 0 -> is_blk h2) ->
  (hword s rv = 0 -> hword s h2 <> 0 ->
     (forall off, off = 16 \/ off = 32 \/ off = 48 -> hword s (h2 + off) = 0 \/ is_blk (hword s (h2 + off))) /\
     bounded 3 s (hword s h2)) ->
  exists s', steps im pos s (pnth pos (List.length cs)) s' /\
    st_eqB (abs_heap (Heap.frontier (snd (Heap.acquire (abs_heap F s)))) s') (snd (Heap.acquire (abs_heap F s))) /\
    fst (Heap.acquire (abs_heap F s)) = rv /\
    (forall r', r' <> TEMP -> r' <> HEAP -> r' <> FREE -> rget s' r' = rget s r') /\
    stack s' = stack (sset s sp q (Some rv)) /\ out s' = out s /\ frame_ok s' sp /\
    (forall a, ~ is_blk a -> hword s' a = hword s a).
Proof.
  intros cs HC HL FR Q Hh Hb Hf Hb2 Hch. unfold cs in *. clear cs. rewrite acquire_block_spill in *.
  set (s0 := rset s TEMP (Some rv)).
  assert (F0 : frame_ok s0 sp) by (apply frame_ok_rset; [discriminate|exact FR]).
  set (s1 := sset s0 sp q (Some rv)).
  destruct (x86_acquire_tail_ok (pnth pos 2) TEMP lc s1 sp rv h2 F) as (s' & ST & EQ & Ef & Oth & Stk & Out & FR' & NB).
  { intros n c Hn. rewrite pnth_add. apply HC. exact Hn. }
  { intros n c Hn. rewrite pnth_add. apply HL. exact Hn. }
  { apply frame_ok_sset. exact F0. }
  { discriminate. }
  { apply rget_rset_same. }
  { unfold s1, s0. rewrite rget_sset, rget_rset_other by discriminate. exact Hh. }
  { exact Hb. }
  { unfold s1, s0. rewrite rget_sset, rget_rset_other by discriminate. exact Hf. }
  { exact Hb2. }
  { exact Hch. }
  change (abs_heap F s1) with (abs_heap F s0) in EQ, Ef. unfold s0 in EQ, Ef. rewrite abs_heap_rset in EQ, Ef by discriminate.
  exists s'. split; [|split; [exact EQ|split; [exact Ef|split; [|split; [exact Stk|split; [exact Out|split; [exact FR'|exact NB]]]]]]].
  - eapply steps_next; [apply (HC 0%nat); reflexivity|cbn [step]; rewrite Hh; reflexivity|].
    eapply steps_next; [apply (HC 1%nat); reflexivity| |exact ST].
    rewrite (step_MOVS_slot im s0 sp F0) by exact Q. unfold s0 at 2. rewrite rget_rset_other by discriminate. rewrite Hh. reflexivity.
  - intros r' A B C. rewrite Oth by assumption. unfold s1, s0. rewrite rget_sset. apply rget_rset_other. congruence.
Qed.

Theorem x86_acquire_block_spill_ok pos q lc s sp rv h2 F :
  let cs := fst (acquire_block (XS q) lc) in
  code_at im pos cs -> labels_at im pos cs ->
  frame_ok s sp -> slot_ok q ->
  rget s HEAP = Some rv -> is_blk rv -> rget s FREE = Some h2 ->
  (hword s rv = 0 -> is_blk h2) ->
  (hword s rv = 0 -> hword s h2 <> 0 ->
     (forall off, off = 16 \/ off = 32 \/ off = 48 -> hword s (h2 + off) = 0 \/ is_blk (hword s (h2 + off))) /\
     bounded 3 s (hword s h2)) ->
  exists s', steps im pos s (pnth pos (List.length cs)) s' /\
    st_eqB (abs_heap (Heap.frontier (snd (Heap.acquire (abs_heap F s)))) s') (snd (Heap.acquire (abs_heap F s))) /\
    sget s' sp q = Some rv /\ fst (Heap.acquire (abs_heap F s)) = rv /\
    (forall r', r' <> TEMP -> r' <> HEAP -> r' <> FREE -> rget s' r' = rget s r') /\
    (forall q', slot_ok q' -> q' <> q -> sget s' sp q' = sget s sp q') /\ out s' = out s /\ frame_ok s' sp.
Proof.
  intros cs HC HL FR Q Hh Hb Hf Hb2 Hch.
  destruct (x86_acquire_block_spill_frame pos q lc s sp rv h2 F HC HL FR Q Hh Hb Hf Hb2 Hch)
    as (s' & ST & EQ & Ef & Oth & Stk & Out & FR' & _).
  exists s'. split; [exact ST|]. split; [exact EQ|]. split; [|split; [exact Ef|split; [exact Oth|split; [|auto]]]].
  - unfold sget. rewrite Stk. apply (sget_sset_same s sp q).
  - intros q' Q' N. unfold sget. rewrite Stk. apply (sget_sset_other s sp q q'); auto. apply FR.
Qed.
End Refine.
