(* C17, order of the emitted type instances.  The checker collects the monomorphic instances from a
   HashMap (arbitrary iteration order; in the model: insertion order) and sorts them by name
   (fix f423564).  Here: the sorted list is a function of the SET of instances - two lists with
   pairwise different names and the same elements sort to the same list ([sort_by_name_set]), and
   collecting the entries of the instance table in ANY order (any permutation of the entries, i.e.
   any hash iteration order and any order in which the definitions created the instances) yields
   the same declaration lists ([collect_sorted_order_independent]); the lists of an accepted program are strictly
   sorted ([check_output_sorted]) and a function of the sets of instances ([check_instances_function_of_set]).
   The uniqueness of a strictly sorted list comes from Proof/Determinism.v ([sorted_unique], the
   ordered-set lemma used for the back ends' BTreeSets), instantiated with the byte-wise string
   order of `String::cmp`. *)
From Coq Require Import List ZArith NArith String Bool Permutation Sorted Lia.
From Coq Require Import Structures.OrderedTypeEx.
From SCC Require Import Lang.FunSyn Model.Check Sem.FunNames Sem.FunClosed Proof.CheckPoly Proof.CheckInstBase Proof.CheckAnn Proof.CheckBuild Proof.Determinism Proof.CheckPolyProg Proof.CheckInst.
Import ListNotations.
Open Scope list_scope.

Lemma scmp_eq : forall a b : string, String.compare a b = Eq <-> a = b.
Proof. exact String_as_OT.cmp_eq. Qed.
Lemma scmp_lt_trans : forall a b c : string,
  String.compare a b = Lt -> String.compare b c = Lt -> String.compare a c = Lt.
Proof.
  intros a b c H1 H2. apply String_as_OT.cmp_lt. eapply String_as_OT.lt_trans; apply String_as_OT.cmp_lt; eassumption.
Qed.
Lemma scmp_antisym : forall a b : string, String.compare a b = Gt <-> String.compare b a = Lt.
Proof.
  intros a b. pose proof (String_as_OT.cmp_antisym a b) as H. unfold String_as_OT.cmp in H.
  destruct (String.compare b a) eqn:E; simpl in H; rewrite H; split; congruence.
Qed.
(* the strict order of Proof/Determinism.v at String.compare: byte-wise, as `String::cmp` *)
Definition klt : string -> string -> Prop := ltk String.compare.
Lemma leb_lt : forall a b, String.leb a b = true -> a <> b -> klt a b.
Proof.
  intros a b H Hn. unfold String.leb in H. unfold klt, ltk. destruct (String.compare a b) eqn:E; try reflexivity; try discriminate.
  apply scmp_eq in E. contradiction.
Qed.
Lemma nleb_gt : forall a b, String.leb a b = false -> klt b a.
Proof.
  intros a b H. unfold String.leb in H. unfold klt, ltk. destruct (String.compare a b) eqn:E; try discriminate.
  apply scmp_antisym. exact E.
Qed.

Section SortByName.
  Context {X : Type} (key : X -> string).

  Lemma insert_sorted_sorted : forall x l,
    StronglySorted klt (map key l) -> ~ In (key x) (map key l) ->
    StronglySorted klt (map key (insert_sorted key x l)).
  Proof.
    intros x l. induction l as [|y r IH]; intros Hs Hn; simpl.
    - repeat constructor.
    - simpl in Hs. inversion Hs as [|? ? Hsr Hall]; subst.
      destruct (name_leb (key y) (key x)) eqn:E; simpl.
      + constructor.
        * apply IH; [assumption|]. intro Hin. apply Hn. right. assumption.
        * rewrite Forall_forall in *. intros k Hk. apply in_map_iff in Hk. destruct Hk as [z [<- Hz]].
          apply (Permutation_in _ (insert_sorted_perm key x r)) in Hz. destruct Hz as [<-|Hz].
          -- apply leb_lt; [exact E|]. intro Heq. apply Hn. left. exact Heq.
          -- apply Hall. apply in_map. assumption.
      + constructor; [exact Hs|]. constructor; [apply nleb_gt; exact E|].
        rewrite Forall_forall in *. intros k Hk. eapply scmp_lt_trans; [apply nleb_gt; exact E|apply Hall; exact Hk].
  Qed.

  Lemma sort_by_name_sorted : forall l, NoDup (map key l) -> StronglySorted klt (map key (sort_by_name key l)).
  Proof.
    intros l. unfold sort_by_name.
    assert (G : forall acc, StronglySorted klt (map key acc) -> NoDup (map key acc ++ map key l) ->
              StronglySorted klt (map key (fold_left (fun acc x => insert_sorted key x acc) l acc))).
    { induction l as [|x r IH]; intros acc Hs Hn; simpl; [exact Hs|].
      apply IH.
      - apply insert_sorted_sorted; [exact Hs|]. simpl in Hn. apply NoDup_remove_2 in Hn.
        intro Hin. apply Hn. apply in_or_app. left. exact Hin.
      - simpl in Hn. eapply Permutation_NoDup; [|exact Hn].
        rewrite (Permutation_map key (insert_sorted_perm key x acc)). simpl.
        apply Permutation_sym. apply Permutation_middle. }
    intros Hn. apply G; [constructor|exact Hn].
  Qed.

  Lemma NoDup_map_inj : forall l x y, NoDup (map key l) -> In x l -> In y l -> key x = key y -> x = y.
  Proof.
    induction l as [|z r IH]; intros x y Hn Hx Hy E; [destruct Hx|]. simpl in Hn. inversion Hn as [|? ? Hnot Hn']; subst.
    destruct Hx as [<-|Hx], Hy as [<-|Hy]; auto.
    - exfalso. apply Hnot. rewrite E. apply in_map. assumption.
    - exfalso. apply Hnot. rewrite <- E. apply in_map. assumption.
  Qed.
  (* lists whose elements are determined by their keys are equal when their key lists are *)
  Lemma keys_determine : forall a b : list X,
    (forall x y, In x a -> In y b -> key x = key y -> x = y) -> map key a = map key b -> a = b.
  Proof.
    induction a as [|x r IH]; intros [|y s] H E; simpl in E; try discriminate; [reflexivity|].
    inversion E. f_equal.
    - apply H; simpl; auto.
    - apply IH; [|assumption]. intros. apply H; simpl; auto.
  Qed.

  Lemma sorted_klt_NoDup : forall l, StronglySorted klt l -> NoDup l.
  Proof.
    induction 1 as [|a l Hs IH Hall]; constructor; [|exact IH].
    intro Hin. rewrite Forall_forall in Hall. specialize (Hall a Hin).
    unfold klt, ltk in Hall. assert (String.compare a a = Eq) by (apply scmp_eq; reflexivity). congruence.
  Qed.
  Lemma sorted_lists_equal : forall a b : list X,
    StronglySorted klt (map key a) -> StronglySorted klt (map key b) -> (forall x, In x a <-> In x b) -> a = b.
  Proof.
    intros a b Sa Sb M. apply keys_determine.
    - intros x y Hx Hy E. apply (NoDup_map_inj a x y (sorted_klt_NoDup _ Sa) Hx); [apply M; exact Hy|exact E].
    - apply (sorted_unique String.compare scmp_eq scmp_lt_trans); [exact Sa|exact Sb|].
      intros k. split; intros Hk; apply in_map_iff in Hk; destruct Hk as [z [<- Hz]]; apply in_map; apply M; exact Hz.
  Qed.

  Theorem sort_by_name_set : forall l l', NoDup (map key l) -> NoDup (map key l') ->
    (forall x, In x l <-> In x l') -> sort_by_name key l = sort_by_name key l'.
  Proof.
    intros l l' Hn Hn' Hm.
    pose proof (sort_by_name_perm key l) as P. pose proof (sort_by_name_perm key l') as P'.
    apply sorted_lists_equal; [apply sort_by_name_sorted; exact Hn|apply sort_by_name_sorted; exact Hn'|].
    intros x. split; intros Hx.
    + apply (Permutation_in _ (Permutation_sym P')). apply Hm. eapply Permutation_in; eassumption.
    + apply (Permutation_in _ (Permutation_sym P)). apply Hm. eapply Permutation_in; eassumption.
  Qed.
  Corollary sort_by_name_permutation : forall l l', NoDup (map key l) -> Permutation l l' ->
    sort_by_name key l = sort_by_name key l'.
  Proof.
    intros l l' Hn P. apply sort_by_name_set; [exact Hn| |].
    - eapply Permutation_NoDup; [apply Permutation_map; exact P|exact Hn].
    - intros x. split; intros Hx; [eapply Permutation_in; eassumption|eapply Permutation_in; [apply Permutation_sym|]; eassumption].
  Qed.
End SortByName.

Lemma collect_types_perm : forall st l l', Permutation l l' ->
  forall das cos, collect_types st l = COk (das, cos) ->
  exists das' cos', collect_types st l' = COk (das', cos') /\ Permutation das das' /\ Permutation cos cos'.
Proof.
  intros st l l' P. induction P as [|[name [[pol targs] xs]] l l' P IH|[n1 [[p1 t1] x1]] [n2 [[p2 t2] x2]] l|l l' l'' P1 IH1 P2 IH2];
    intros das cos H.
  - exists das, cos. auto.
  - simpl in H. simpl. destruct pol.
    + apply cbind_ok in H. destruct H as [cs [Hc H]]. apply cbind_ok in H. destruct H as [[das0 cos0] [Hr H]]. inversion H; subst.
      destruct (IH _ _ Hr) as [das' [cos' [Hr' [Pd Pc]]]]. rewrite Hc. simpl. rewrite Hr'. simpl. eauto 10.
    + apply cbind_ok in H. destruct H as [cs [Hc H]]. apply cbind_ok in H. destruct H as [[das0 cos0] [Hr H]]. inversion H; subst.
      destruct (IH _ _ Hr) as [das' [cos' [Hr' [Pd Pc]]]]. rewrite Hc. simpl. rewrite Hr'. simpl. eauto 10.
  - simpl in H. simpl.
    destruct p1, p2;
      apply cbind_ok in H; destruct H as [c1 [Hc1 H]]; apply cbind_ok in H; destruct H as [[da1 co1] [H1 H]];
      apply cbind_ok in H1; destruct H1 as [c2 [Hc2 H1]]; apply cbind_ok in H1; destruct H1 as [[da2 co2] [Hr H1]];
      inversion H1; subst; inversion H; subst;
      rewrite Hc1, Hc2; simpl; rewrite Hr; simpl; eexists _, _; (split; [reflexivity|]);
      split; auto using perm_swap, Permutation_refl.
  - destruct (IH1 _ _ H) as [das1 [cos1 [H1 [Pd1 Pc1]]]]. destruct (IH2 _ _ H1) as [das2 [cos2 [H2 [Pd2 Pc2]]]].
    exists das2, cos2. split; [exact H2|]. split; eapply perm_trans; eassumption.
Qed.

(* whatever the iteration order of the table, the sorted declaration lists are the same *)
Theorem collect_sorted_order_independent : forall st l l' das cos das' cos',
  NoDup (map fst l) -> Permutation l l' ->
  collect_types st l = COk (das, cos) -> collect_types st l' = COk (das', cos') ->
  sort_by_name fdaname das = sort_by_name fdaname das' /\ sort_by_name fcoaname cos = sort_by_name fcoaname cos'.
Proof.
  intros st l l' das cos das' cos' Hn P H H'.
  destruct (collect_types_perm st l l' P das cos H) as [das2 [cos2 [H2 [Pd Pc]]]].
  rewrite H' in H2. inversion H2; subst das2 cos2.
  destruct (collect_types_spec _ _ _ _ H) as [Pn _].
  assert (Hnn : NoDup (map fdaname das ++ map fcoaname cos)).
  { eapply Permutation_NoDup; [apply Permutation_sym; exact Pn|exact Hn]. }
  split; apply sort_by_name_permutation; try assumption.
  - eapply NoDup_app_l. exact Hnn.
  - eapply NoDup_app_r. exact Hnn.
Qed.

Theorem check_output_sorted : forall eager p q, prog_names_ok p = true -> check_gen eager p = COk q ->
  StronglySorted klt (map fdaname (fcpdata q)) /\ StronglySorted klt (map fcoaname (fcpcodata q)).
Proof.
  intros eager p q Hm H. destruct (check_gen_run eager p q Hm H) as (st & st1 & das & cos & R).
  pose proof (pr_inv R) as I1. pose proof (pr_collect R) as Hcol. pose proof (pr_out R) as Hq.
  destruct (collect_types_spec _ _ _ _ Hcol) as [Pn _].
  assert (Hnn : NoDup (map fdaname das ++ map fcoaname cos)).
  { eapply Permutation_NoDup; [apply Permutation_sym; exact Pn|apply (pi_nodup _ _ I1)]. }
  rewrite Hq. simpl. split; apply sort_by_name_sorted; [eapply NoDup_app_l|eapply NoDup_app_r]; exact Hnn.
Qed.
(* hence the emitted lists are a function of the SETS of instances, whatever program, order of
   definitions or iteration order produced them *)
Theorem check_instances_function_of_set : forall eager p q eager' p' q',
  prog_names_ok p = true -> prog_names_ok p' = true -> check_gen eager p = COk q -> check_gen eager' p' = COk q' ->
  ((forall d, In d (fcpdata q) <-> In d (fcpdata q')) -> fcpdata q = fcpdata q')
  /\ ((forall d, In d (fcpcodata q) <-> In d (fcpcodata q')) -> fcpcodata q = fcpcodata q').
Proof.
  intros eager p q eager' p' q' Hm Hm' H H'.
  destruct (check_output_sorted eager p q Hm H) as [S1 S2]. destruct (check_output_sorted eager' p' q' Hm' H') as [S1' S2'].
  split; intros M; eapply sorted_lists_equal; eassumption.
Qed.
