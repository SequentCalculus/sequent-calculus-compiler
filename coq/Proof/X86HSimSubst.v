(* C06, forward simulation for HEAP statements: Substitute with objects and closures that own heap
   blocks.  The reference-count code (Proof/X86Subst.v `x86_emit_rc_ok`: exact heap afterwards) performs, in
   the abstraction, exactly the operations `subst_ops` of the instrumented machine (Sem/AxHeap.v), in the same
   order (the order of the BTreeMap `transpose`); the parallel moves then carry both temporaries of every
   surviving variable to its new positions (Proof/X86ParMoves.v). *)
From Coq Require Import List ZArith NArith String Bool Lia FMapPositive Permutation.
From SCC Require Import Proof.X86Mem Proof.X86MemFrame Proof.X86StackFrame.
From SCC Require Import Base.Sexp Lang.AxSyn Sem.AxSem Sem.AxHeap Model.ParMoves Model.Backend Model.X86 Sem.X86Sem Sem.X86Wf
     Model.Linearize Model.LinCheck Generated.Constants Proof.LinBasics Proof.X86State Proof.X86Sel Proof.X86Exec Proof.X86ParMoves
     Proof.SubstGraph Proof.X86Subst Proof.X86SimRel Proof.X86SimStmt Proof.X86HeapDefs Proof.X86HeapCongr Proof.X86HBridge Proof.X86HFrame
     Proof.X86HSimRel Proof.X86HConv Proof.X86HSimStore Proof.X86HSubstHeap.
From SCC Require Model.Heap Proof.HeapMore Proof.HeapTrace Proof.HeapRep.
Import ListNotations.
Open Scope Z_scope.
Open Scope list_scope.

Lemma hsubst_nth : forall re (he he' : henv) j x v q,
  hsubst he re = Some he' -> nth_error he' j = Some (x, v, q) ->
  exists pj en, nth_error re j = Some pj /\ hlookup he (idn (snd pj)) = Some en /\
                x = bvar (fst pj) /\ v = h_val en /\ q = h_ptr en.
Proof.
  induction re as [|[nb old] re IH]; intros he he' j x v q H Hj; cbn [hsubst] in H.
  - inversion H; subst. destruct j; discriminate.
  - destruct (hlookup he (idn old)) as [en|] eqn:L; [|discriminate].
    destruct (hsubst he re) as [hr|] eqn:R; [|discriminate]. inversion H; subst he'.
    destruct j as [|j]; cbn [nth_error] in *.
    + inversion Hj; subst. exists (nb, old), en. auto.
    + eapply IH; eauto.
Qed.
Lemma hsubst_ids : forall re (he he' : henv), hsubst he re = Some he' -> env_ids (erase_env he') = new_ids re.
Proof.
  induction re as [|[nb old] re IH]; intros he he' H; cbn [hsubst] in H.
  - inversion H. reflexivity.
  - destruct (hlookup he (idn old)) as [en|]; [|discriminate]. destruct (hsubst he re) as [hr|] eqn:R; [|discriminate].
    inversion H; subst. cbn. f_equal. eapply IH; eauto.
Qed.
Lemma hlookup_Some (he : henv) x en : hlookup he x = Some en -> exists i, nth_error he i = Some en /\ idn (h_id en) = x.
Proof.
  induction he as [|e0 he IH]; cbn [hlookup]; [discriminate|].
  destruct (N.eqb_spec (idn (h_id e0)) x) as [E|E].
  - intros H; inversion H; subst. exists O. auto.
  - intros H. destruct (IH H) as (i & Hi & Hx). exists (S i). auto.
Qed.
Lemma hlookup_nodup (he : henv) i en :
  NoDup (env_ids (erase_env he)) -> nth_error he i = Some en -> hlookup he (idn (h_id en)) = Some en.
Proof.
  revert i. induction he as [|e0 he IH]; intros i ND H; [destruct i; discriminate|].
  cbn in ND. inversion ND as [|? ? NI ND']; subst. destruct i as [|i]; cbn [nth_error hlookup] in *.
  - inversion H; subst. now rewrite N.eqb_refl.
  - destruct (N.eqb_spec (idn (h_id e0)) (idn (h_id en))) as [E|E]; [|eauto].
    exfalso. apply NI. apply nth_error_In in H. unfold env_ids, erase_env. rewrite map_map.
    apply in_map_iff. exists en. split; [|exact H]. unfold h_id in E. symmetry. exact E.
Qed.

(* the operations of a substitution, along the object variables of the transposed map *)
Lemma subst_ops_order (P : binding -> Z) re : forall (tm : list (binding * list N)),
  (forall b tg, In (b, tg) tm -> tg = targets re b) ->
  flat_map (fun bt : binding * list N => AxHeap.rc_op (bchi (fst bt)) (P (fst bt)) (List.length (snd bt))) tm =
  flat_map (fun b => AxHeap.rc_op (bchi b) (P b) (count_targets re b)) (filter is_obj (map fst tm)).
Proof.
  induction tm as [|[b tg] tm IH]; intros H; [reflexivity|]. cbn [flat_map map filter fst snd].
  rewrite IH by (intros b' tg' Hin; apply (H b' tg'); now right).
  rewrite (H b tg (or_introl eq_refl)). unfold is_obj.
  replace (List.length (targets re b)) with (count_targets re b) by (unfold targets, count_targets; now rewrite map_length).
  destruct (bchi b) eqn:Kb; cbn [flat_map app]; rewrite ?Kb; reflexivity.
Qed.

(* every pair of a substitution takes its value from a variable of the context of the same kind and type *)
Lemma subst_sources c re : (forall q, In q re -> has c (snd q) (bchi (fst q)) (bty (fst q)) = true) ->
  forall j pj, nth_error re j = Some pj ->
  exists i bi, nth_error c i = Some bi /\ idn (bvar bi) = idn (snd pj) /\ bchi bi = bchi (fst pj) /\ bty bi = bty (fst pj).
Proof.
  intros KIND j pj Hj. specialize (KIND pj (nth_error_In _ _ Hj)). unfold has in KIND.
  destruct (lookup_b c (idn (snd pj))) as [bi|] eqn:LB; [|discriminate].
  apply lookup_b_Some in LB as [Hin Hid]. apply andb_true_iff in KIND as [K1 K2].
  apply chi_eqb_eq in K1. apply ty_eqb_eq in K2. apply In_nth_error in Hin as (i & Hi). eauto 8.
Qed.

(* the parallel moves of a substitution read and write temporaries of variables only *)
Lemma moves_var_temps c re am :
  NoDup (ids c) -> NoDup (new_ids re) -> connections x86_backend (transpose re c) c (map fst re) = Ok am ->
  forall t, In t (map fst am) \/ In t (all_targets xtemp am) -> var_temp t /\ t <> XR FREE /\ t <> XR HEAP.
Proof.
  intros NDc NDn CN.
  destruct (transpose_connections_indeg1 x86_backend x86_backend_ok c re am NDc NDn CN) as (_ & _ & SRT & KEYS).
  pose proof (connections_edges x86_backend x86_backend_ok c re am NDc NDn CN) as EDG.
  intros t [Hk|Ht].
  - destruct (KEYS t Hk) as (i & bi & n & _ & _ & Hp). destruct (xtpos_var_temp n i t Hp); tauto.
  - unfold all_targets in Ht. apply in_flat_map in Ht as ([k ts] & Hin & Ht). cbn [snd] in Ht.
    assert (edge xtemp xeqb am k t) as E.
    { exists ts. split; [|exact Ht]. apply lookup_of_In; auto.
      apply (sorted_nodup xtemp_compare (cmp_eq x86_backend x86_backend_ok)). exact SRT. }
    apply EDG in E as (i & j & bi & pj & n & _ & _ & _ & _ & _ & Hb). destruct (xtpos_var_temp n j t Hb); tauto.
Qed.

(* phase 1 of a substitution, operation by operation: the reference-count operations emitted for the object
   variables (positions `order`) are executable in `s`, and their abstraction is what the machine performs *)
Lemma rc_ops_abs (he : henv) s sp re : NoDup (env_ids (erase_env he)) -> (List.length re <= 134)%nat ->
  forall (order : list (nat * binding)) (ops : list (list (@SubstGraph.rc_op xtemp))),
  Forall2 (fun ib o => exists t, xtpos Fst (fst ib) = Ok t /\ o = rc_op_for t (count_targets re (snd ib))) order ops ->
  (forall i b, In (i, b) order -> is_obj b = true) ->
  (forall i b t, In (i, b) order -> xtpos Fst i = Ok t ->
     exists x v q, nth_error he i = Some (x, v, q) /\ idn x = idn (bvar b) /\ lget s sp t = Some q /\ (q = 0 \/ is_blk q)) ->
  Forall (rc_ok s sp) (List.concat ops) /\ Forall (rc_good s sp) (List.concat ops) /\
  map (rc_abs s sp) (List.concat ops) =
    flat_map (fun b => AxHeap.rc_op (bchi b) (AxHeap.ptr_of he (idn (bvar b))) (count_targets re b)) (map snd order) /\
  (List.length (List.concat ops) <= List.length order)%nat.
Proof.
  intros NDe LR. induction 1 as [|[i b] o order' ops' (t & Ht & ->) _ IHF]; intros OBJ PTR; cbn [List.concat map flat_map List.length].
  - repeat split; auto.
  - destruct (IHF (fun i0 b0 H0 => OBJ i0 b0 (or_intror H0)) (fun i0 b0 t0 H0 => PTR i0 b0 t0 (or_intror H0))) as (I1 & I2 & I3 & I4).
    cbn [fst snd] in *.
    destruct (xtpos_var_temp Fst i t Ht) as (VT & NF & _).
    destruct (PTR i b t (or_introl eq_refl) Ht) as (x & v & q & He & Ex & Lq & Bq).
    assert (BO : q = 0 \/ block_ok q).
    { destruct Bq as [->|Bq]; [now left|right]. destruct (heap_addr_facts q (blk_heap_addr q Bq)) as (A1 & A2 & _).
      split; [unfold aligned in A1; apply Z.eqb_eq in A1; exact A1|exact A2]. }
    assert (PQ : X86Subst.ptr_of s sp t = q) by (unfold X86Subst.ptr_of; now rewrite Lq).
    assert (AQ : AxHeap.ptr_of he (idn (bvar b)) = q).
    { unfold AxHeap.ptr_of. rewrite <- Ex. change (idn x) with (idn (h_id (x, v, q))).
      rewrite (hlookup_nodup he i (x, v, q) NDe He). reflexivity. }
    pose proof (OBJ i b (or_introl eq_refl)) as Ho. unfold is_obj in Ho.
    pose proof (count_targets_le re b) as LE.
    rewrite !map_app, !app_length, AQ.
    destruct (count_targets re b) as [|[|k]] eqn:CT; cbn [rc_op_for map app List.length rc_abs].
    + split; [|split; [|split]].
      * constructor; [|exact I1]. unfold rc_ok; cbn [rc_temp]. split; [exact VT|split; [exact NF|split; [exists q; auto|exact I]]].
      * constructor; [|exact I2]. split; [cbn [rc_temp]; rewrite PQ; exact Bq|exact I].
      * rewrite PQ, I3. destruct (bchi b); try discriminate; reflexivity.
      * lia.
    + split; [exact I1|split; [exact I2|split]].
      * rewrite I3. destruct (bchi b); try discriminate; reflexivity.
      * lia.
    + split; [|split; [|split]].
      * constructor; [|exact I1]. unfold rc_ok; cbn [rc_temp]. split; [exact VT|split; [exact NF|split; [exists q; auto|]]].
        unfold fits32. apply andb_true_iff. split; apply Z.leb_le; lia.
      * constructor; [|exact I2]. split; [cbn [rc_temp]; rewrite PQ; exact Bq|lia].
      * rewrite PQ, I3, nat_N_Z. destruct (bchi b); try discriminate; reflexivity.
      * lia.
Qed.

Section HSubst.
Variable im : image.
Variable types : list tydecl.
Variable CLO : Z -> ident -> list clause -> ctx -> Prop.
Local Notation hrel := (hrel types CLO).
Local Notation hvrep := (hvrep types CLO).
Local Notation xrep := (xrep types CLO).

(* the bounds the reference-count code needs of the heap words: headers below 2^32 - 134, the deferred list inside
   the heap region *)
Lemma hrel_hb2 c he hs s sp hl fl cl :
  hrel c he hs s sp -> InvA HEAP_BASE hs (roots he) hl fl cl -> P03 hs -> Heap.frontier hs <= LIMIT ->
  hb2 HB (heap s, Heap.free hs).
Proof.
  intros R IA K03 HFr. pose proof (hrel_small types CLO _ _ _ _ _ R) as SMALL. split; cbn [fst snd].
  - intros y Hy. destruct (heq_abs_ps _ s hs y (hr_heq R) Hy) as [_ E]. change (hget (heap s) y) with (hword s y). rewrite <- E.
    pose proof (hdr_bounds_x hs _ hl fl cl IA (P03_P3 _ K03) HFr ltac:(pose proof (roots_length he); lia) y Hy). lia.
  - destruct (free_blk _ _ _ _ _ IA) as [(k & Hk & E) L]. unfold HB, LIMIT, HEAP_BASE, HEAP_SIZE, Heap.BLOCK in *. lia.
Qed.

Theorem hsim_substitute c he hs s sp re he' c1 lc lc1 c2 pc hl fl cl :
  hrel c he hs s sp -> NoDup (new_ids re) ->
  (forall q, In q re -> has c (snd q) (bchi (fst q)) (bty (fst q)) = true) ->
  hsubst he re = Some he' -> ctx_of he = c ->
  InvA HEAP_BASE hs (roots he) hl fl cl -> P03 hs -> Heap.frontier hs <= LIMIT ->
  code_weakening_contraction x86_backend (transpose re c) c lc = Ok (c1, lc1) ->
  code_exchange x86_backend (transpose re c) c (map fst re) = Ok c2 ->
  code_at im pc (c1 ++ c2) -> labels_at_nh im pc (c1 ++ c2) ->
  exists s', exec_to im pc s (padd pc (List.length (c1 ++ c2))) s' /\
             hrel (map fst re) he' (hrun (subst_ops he re) hs) s' sp /\ hframe_eq s s' sp.
Proof.
  intros R NDn KIND HS CTX IA K03 HFr WC CE CA LA.
  pose proof (hr_nodup R) as NDc. pose proof (hr_frame R) as F. pose proof (hrel_length R) as LEN.
  pose proof (hrel_small types CLO _ _ _ _ _ R) as SMALL.
  apply code_at_app in CA as [CA1 CA2]. apply labels_at_nh_app in LA as [LA1 _].
  unfold code_exchange in CE.
  destruct (connections x86_backend (transpose re c) c (map fst re)) as [am|] eqn:CN; cbn [rbind] in CE; [|discriminate].
  pose proof (subst_sources c re KIND) as SRC.
  (* positions from 134 on have no temporary (267 temporaries, two per position): the code generator fails there *)
  assert (LR : (List.length re <= 134)%nat).
  { destruct (Nat.le_gt_cases (List.length re) 134) as [L|L]; [exact L|]. exfalso.
    destruct (nth_error re 134) as [pj|] eqn:Hj; [|apply nth_error_None in Hj; lia].
    destruct (SRC _ _ Hj) as (i & bi & Hi & Ei & _).
    destruct (subst_edge c re am Snd i bi 134%nat pj NDc NDn CN Hi (or_introl eq_refl) Hj (eq_sym Ei)) as (_ & tb & _ & Tb & _).
    vm_compute in Tb. discriminate. }
  (* the entries of the environment, by position *)
  assert (ENT : forall i b, nth_error c i = Some b -> exists x v q, nth_error he i = Some (x, v, q) /\ idn x = idn (bvar b) /\ hvrep s sp i b v q).
  { intros i b Hb. assert (Li : (i < List.length he)%nat) by (rewrite LEN; apply nth_error_Some; congruence).
    destruct (nth_error he i) as [[[x v] q]|] eqn:He; [|apply nth_error_None in He; lia].
    destruct (hr_vals R i x v q He) as (b' & Hb' & V). assert (b' = b) by congruence. subst b'.
    destruct (henv_ctx_nth c he i x v q (hr_ids R) He) as (b'' & Hb'' & Eb). assert (b'' = b) by congruence. subst b''.
    exists x, v, q. auto. }
  (* phase 1: the reference counts *)
  assert (TMOK : forall b tg, In (b, tg) (transpose re c) -> In b c /\ tg = targets re b).
  { intros b tg Hb. now apply (In_transpose re c b tg (NoDup_map_inv _ _ NDc)) in Hb. }
  destruct (cwc_spec x86_backend c re NDc (transpose re c) lc c1 lc1 TMOK WC) as (order & OM & ORD & ops & F2 & EM).
  assert (OBJ : forall i b, In (i, b) order -> is_obj b = true).
  { intros i b Hin. assert (In b (map snd order)) as Hb by (apply in_map_iff; exists (i, b); auto).
    rewrite OM in Hb. apply filter_In in Hb. tauto. }
  (* pointer of an object variable *)
  assert (PTR : forall i b t, In (i, b) order -> xtpos Fst i = Ok t ->
            exists x v q, nth_error he i = Some (x, v, q) /\ idn x = idn (bvar b) /\ lget s sp t = Some q /\ (q = 0 \/ is_blk q)).
  { intros i b t Hin Ht. destruct (ENT i b (ORD i b Hin)) as (x & v & q & He & Ex & V).
    exists x, v, q. split; [exact He|]. split; [exact Ex|].
    pose proof (OBJ i b Hin) as Ho. unfold is_obj in Ho.
    destruct V as [b z q t0 A B T Lg|b v q a t1 t2 A K1 K2 T1 T2 L1 L2 X]; [rewrite A in Ho; discriminate|].
    assert (t1 = t) by congruence. subst t1. split; [exact L1|]. eapply xrep_ptr; eauto. }
  assert (NDe : NoDup (env_ids (erase_env he))) by (rewrite (hr_ids R); exact NDc).
  set (g := fun b : binding => AxHeap.rc_op (bchi b) (AxHeap.ptr_of he (idn (bvar b))) (count_targets re b)).
  destruct (rc_ops_abs he s sp re NDe LR order ops F2 OBJ PTR) as (RCOK & GOOD & OPSEQ & NOPS). fold g in OPSEQ.
  assert (LORD : (List.length order <= 134)%nat).
  { rewrite <- (map_length snd order), OM.
    assert (FL : forall (l : list binding), (List.length (filter is_obj l) <= List.length l)%nat).
    { induction l as [|a l IHl]; cbn [filter List.length]; [lia|]. destruct (is_obj a); cbn [List.length]; lia. }
    etransitivity; [apply FL|]. rewrite map_length.
    rewrite (Permutation_length (transpose_perm re c (NoDup_map_inv _ _ NDc))), map_length. lia. }
  assert (SOPS : subst_ops he re = flat_map g (map snd order)).
  { unfold subst_ops. rewrite CTX, OM. apply (subst_ops_order (fun b => AxHeap.ptr_of he (idn (bvar b))) re (transpose re c)).
    intros b tg Hb. exact (proj2 (TMOK b tg Hb)). }
  rewrite <- SOPS in OPSEQ.
  assert (EMc : c1 = fst (emit_rc x86_backend (List.concat ops) lc)) by (now rewrite <- EM).
  pose proof (hr_freereg R) as FR. set (f := Heap.free hs) in *.
  assert (LA1' : labels_at im pc c1) by (apply labels_at_of_nh; [rewrite EMc; apply nh_emit_rc|exact LA1]).
  rewrite EMc in CA1, LA1'.
  destruct (x86_emit_rc_ok im s sp (List.concat ops) pc lc s f RCOK (fun r _ _ => eq_refl) eq_refl CA1 LA1' F FR)
    as (s1 & f1 & X1 & X2 & X3 & X4 & X5 & X6).
  rewrite <- EMc in X1.
  (* the abstraction of the heap after phase 1 *)
  set (F0 := Heap.frontier hs). set (H0 := Heap.heap hs).
  pose proof (hr_heq R) as HQ. fold F0 in HQ.
  assert (EA : abs_heap F0 s = absH F0 H0 (heap s, f)).
  { rewrite <- absH_abs. unfold reg_or0. now rewrite (hr_heapreg R), FR. }
  pose proof (hrel_hb2 c he hs s sp hl fl cl R IA K03 HFr) as HB0. fold f in HB0.
  destruct (rc_fold_abs F0 H0 s sp (List.concat ops) (heap s, f) HB GOOD HB0 ltac:(unfold HB, LIMIT, HEAP_BASE, HEAP_SIZE; lia)
              ltac:(unfold HB; lia)) as (EQ1 & NB1 & FP1).
  cbv zeta in EQ1, NB1, FP1. rewrite <- X3 in EQ1, NB1, FP1. cbn [fst snd] in NB1, FP1.
  rewrite OPSEQ, <- EA in EQ1.
  set (hs2 := hrun (subst_ops he re) hs) in *.
  assert (HQ2 : heq (absH F0 H0 (heap s1, f1)) hs2).
  { eapply heq_eqB; [exact EQ1|]. apply heq_rc_ops; [exact HQ|].
    rewrite <- OPSEQ. apply Forall_forall. intros o Ho. apply in_map_iff in Ho as (o' & <- & Ho').
    pose proof (rc_abs_opnd s sp o') as G. rewrite Forall_forall in GOOD. specialize (G (GOOD o' Ho')).
    unfold rc_opnd_ok. destruct (rc_abs s sp o'); auto. }
  assert (F1 : frame_ok s1 sp).
  { destruct F as [A B]. split; [|exact B]. rewrite X4; [exact A|discriminate|discriminate]. }
  assert (AG : forall t, var_temp t -> t <> XR FREE -> lget s1 sp t = lget s sp t).
  { intros t VT NF. apply lget_agree; auto. }
  (* phase 2: the parallel moves *)
  destruct (transpose_connections_indeg1 x86_backend x86_backend_ok c re am NDc NDn CN) as (IDG & NT & _).
  pose proof (moves_var_temps c re am NDc NDn CN) as VTam.
  destruct (x86_parallel_moves_ok im am c2 s1 sp IDG NT (fun t H => proj1 (VTam t H)) CE F1) as (s2 & E2 & P1 & P2 & F2' & SF).
  pose proof (exec_straight_exec_to im c2 _ s1 s2 CA2 E2) as X2'.
  assert (KEEPR : forall r, r = FREE \/ r = HEAP -> rget s2 r = rget s1 r).
  { intros r Hr. change (rget s2 r) with (lget s2 sp (XR r)). change (rget s1 r) with (lget s1 sp (XR r)).
    apply P2.
    + unfold var_temp; cbn [loc_ok]. destruct Hr as [-> | ->]; change FREE with 3%N; change HEAP with 2%N; change TEMP with 1%N; repeat split; congruence.
    + intros a E. assert (In (XR r) (all_targets xtemp am)) as Hin by (eapply edge_all_targets; eauto).
      destruct (VTam (XR r) (or_intror Hin)) as (_ & N1 & N2). destruct Hr as [-> | ->]; congruence. }
  destruct SF as (SH & SO & _ & _ & SK).
  assert (EXT : forall a, ~ is_blk a -> hword s2 a = hword s a).
  { intros a Ha. unfold hword. rewrite SH. exact (NB1 a Ha). }
  exists s2. split; [rewrite app_length, padd_add; eapply exec_to_trans; eauto|]. split.
  - destruct HQ2 as (Q1 & Q2 & Q3 & Q4). cbn [absH Heap.heap Heap.free Heap.frontier fst snd] in Q1, Q2, Q3.
    assert (RH2 : rget s2 HEAP = Some H0).
    { rewrite (KEEPR HEAP (or_intror eq_refl)), X4; [exact (hr_heapreg R)|discriminate|discriminate]. }
    assert (RF2 : rget s2 FREE = Some f1) by (rewrite (KEEPR FREE (or_introl eq_refl)); exact X2).
    destruct R as [Fr0 Al Ro Hr Frr HQ0 Ids ND0 Vals]. split; auto.
    + rewrite RH2. now rewrite Q1.
    + rewrite RF2. now rewrite Q2.
    + rewrite <- Q3. split; [|split; [|split]]; cbn [abs_heap Heap.heap Heap.free Heap.frontier]; unfold reg_or0; rewrite ?RH2, ?RF2; auto.
      intros y Hy. destruct (Q4 y Hy) as [QA QB]. rewrite <- QA, <- QB. cbn [abs_heap absH Heap.m Heap.hdr Heap.ps fst].
      unfold abs_mem, hword, hget. cbn [Heap.hdr Heap.ps]. rewrite SH. auto.
    + rewrite (hsubst_ids re he he' HS). now rewrite ids_new.
    + now rewrite ids_new.
    + intros j x v q Hj.
      destruct (hsubst_nth re he he' j x v q HS Hj) as (pj & en & Hre & HL & -> & -> & ->).
      exists (fst pj). split; [now rewrite nth_error_map, Hre|].
      destruct (hlookup_Some he _ en HL) as (i & Hi & Ei). destruct en as [[y w] p]. cbn [h_val h_ptr h_id fst snd] in *.
      destruct (Vals i y w p Hi) as (bi & Hbi & V).
      destruct (SRC j pj Hre) as (i' & bi' & Hi' & Ei' & KC & KT).
      assert (i' = i).
      { destruct (henv_ctx_nth c he i y w p Ids Hi) as (b0 & Hb0 & Eb0).
        eapply (ids_nth_inj c i' i bi' b0); eauto. congruence. }
      subst i'. assert (bi' = bi) by congruence. subst bi'.
      assert (MV : forall n ta, allowed n bi -> xtpos n i = Ok ta -> exists tb, xtpos n j = Ok tb /\ lget s2 sp tb = lget s sp ta).
      { intros n ta AL Ta.
        destruct (subst_edge c re am n i bi j pj NDc NDn CN Hbi AL Hre (eq_sym Ei')) as (ta' & tb & Ta' & Tb & ED).
        assert (ta' = ta) by congruence. subst ta'. exists tb. split; [exact Tb|].
        rewrite (P1 ta tb ED). destruct (xtpos_var_temp n i ta Ta) as (VT & NF & _). now apply AG. }
      destruct V as [bi z p t A B T Lg|bi w p a t1 t2 A K1 K2 T1 T2 L1 L2 X].
      * destruct (MV Snd t (or_introl eq_refl) T) as (tb & Tb & Lb).
        eapply hv_int; eauto; congruence.
      * assert (AL : forall n, allowed n bi) by (intros n; right; exact A).
        destruct (MV Fst t1 (AL Fst) T1) as (tb1 & Tb1 & Lb1). destruct (MV Snd t2 (AL Snd) T2) as (tb2 & Tb2 & Lb2).
        eapply (hv_ptr types CLO s2 sp j (fst pj) w p a); eauto; try congruence.
        eapply xrep_ext; [exact EXT|exact X].
  - split; [congruence|]. intros k Hk. rewrite (SK k Hk). now rewrite X5.
Qed.
End HSubst.
