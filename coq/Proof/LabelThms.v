(* C14: label uniqueness and definedness for `compile` of the generic code generator and for the
   complete routines of the three back ends.
   The guard [labels_guard] is a boolean predicate of the (linearized AxCut) program:
     - the printed names of the definitions are pairwise distinct and start with a lower-case letter;
     - the sanitised name of every type a Switch / Create dispatches on does not start with a
       lower-case letter (the lexical classes of the source language: definitions [a-z]..., types
       [A-Z]..., generated continuation types _Cont...);
     - the clauses of one Switch / Create have pairwise distinct printed xtor names;
     - EITHER no such type name contains an underscore followed by a digit, OR no xtor name does and
       none starts with a digit.
   Without the last clause the statement is false ([compile_labels_unique_refuted]): the label texts
   <Type>_<k> and <Type>_<k>_<Xtor> are not injective. *)
From Coq Require Import List ZArith NArith String Ascii Bool Lia Permutation.
From SCC Require Import Base.Sexp Lang.AxSyn Model.ParMoves Model.Backend Model.X86 Model.A64 Model.RV
  Sem.X86Wf Sem.A64Wf Sem.RVWf Sem.LabelGuard
  Proof.LabelStrings Proof.LabelGen Proof.LabelsX86 Proof.LabelsA64 Proof.LabelsRV.
Import ListNotations.
Local Open Scope string_scope.
Local Open Scope list_scope.

Section Generic.
Context {Code Temp : Type} (B : backend Code Temp) (cdefs crefs : Code -> list string).
Hypothesis LO : labels_ok B cdefs crefs.
Notation defs := (LabelGen.defs cdefs).
Notation refs := (LabelGen.refs crefs).

(* a label defined by the code of `translate`: a definition label, or a generated label whose number
   was drawn from the counter during this call *)
Definition label_of_call (lc lc' : N) (l : string) : Prop :=
  exists g, l = pr g /\ (is_gen g = true -> (lc < key g <= lc')%N).

Lemma translate_unique types ds lc c lc' :
  guard_types ds || guard_xtors ds = true -> translate B types ds lc = Ok (c, lc') ->
  NoDup (defs c) /\ (lc <= lc')%N /\ (forall l, In l (defs c) -> label_of_call lc lc' l).
Proof.
  intros G H. apply orb_true_iff in G as [G|G].
  - destruct (translate_labels_unique B cdefs crefs LO ty_ok all_true pr_inj_types types ds lc c lc' G H) as (N & L & I).
    split; [exact N|]. split; [exact L|]. intros l Hl. destruct (I l Hl) as (g & E & _ & K). exists g. split; assumption.
  - destruct (translate_labels_unique B cdefs crefs LO all_true xtor_ok pr_inj_xtors types ds lc c lc' G H) as (N & L & I).
    split; [exact N|]. split; [exact L|]. intros l Hl. destruct (I l Hl) as (g & E & _ & K). exists g. split; assumption.
Qed.

Theorem compile_labels_unique p lc c n lc' :
  labels_guard p = true -> compile B p lc = Ok (c, n, lc') ->
  NoDup (defs c) /\ (lc <= lc')%N /\ ~ In "cleanup" (defs c) /\ ~ In "asm_main" (defs c).
Proof.
  unfold compile, labels_guard. intros G H. destruct (pdefs p) as [|d0 ds] eqn:E; [discriminate|]. rewrite <- E in *.
  rinv H. destruct x as [c0 l0]. cbn [fst snd] in H. inversion H; subst.
  destruct (translate_unique _ _ _ _ _ G E0) as (N & L & I). split; [exact N|]. split; [exact L|]. split.
  - intros X. destruct (I _ X) as (g & Eg & _). symmetry in Eg. exact (cleanup_not_pr g Eg).
  - intros X. destruct (I _ X) as (g & Eg & _). symmetry in Eg. exact (asm_main_not_pr g Eg).
Qed.

Theorem compile_refs_defined p lc c n lc' :
  calls_guard p = true -> compile B p lc = Ok (c, n, lc') ->
  forall l, In l (refs c) -> In l (defs c) \/ l = "cleanup".
Proof.
  unfold compile, calls_guard. intros G H. destruct (pdefs p) as [|d0 ds] eqn:E; [discriminate|]. rewrite <- E in *.
  rinv H. destruct x as [c0 l0]. cbn [fst snd] in H. inversion H; subst.
  apply (translate_refs_defined B cdefs crefs LO _ _ _ _ _ G E0).
Qed.

(* the counter is monotone and the labels of different calls are different: when a second
   compilation starts where (or after) the first one stopped, the two outputs share no generated label *)
Theorem labels_of_later_call_fresh types1 ds1 lc1 c1 lc1' types2 ds2 lc2 c2 lc2' :
  (guard_types ds1 && guard_types ds2) || (guard_xtors ds1 && guard_xtors ds2) = true ->
  translate B types1 ds1 lc1 = Ok (c1, lc1') -> translate B types2 ds2 lc2 = Ok (c2, lc2') -> (lc1' <= lc2)%N ->
  forall l, In l (defs c1) -> In l (defs c2) -> exists name, l = (name ++ "_")%string /\ lower_first name = true.
Proof.
  intros G H1 H2 L l I1 I2. apply orb_true_iff in G as [G|G]; apply andb_true_iff in G as [G1 G2].
  - destruct (translate_labels_unique B cdefs crefs LO ty_ok all_true pr_inj_types _ _ _ _ _ G1 H1) as (_ & _ & K1).
    destruct (translate_labels_unique B cdefs crefs LO ty_ok all_true pr_inj_types _ _ _ _ _ G2 H2) as (_ & _ & K2).
    destruct (K1 l I1) as (g1 & E1 & U1 & R1). destruct (K2 l I2) as (g2 & E2 & U2 & R2).
    assert (g1 = g2) by (apply pr_inj_types; [exact U1|exact U2|congruence]). subst g2.
    destruct g1 as [s|k|T k|T k X]; [exists s; split; [exact E1|exact U1]| | |];
      specialize (R1 eq_refl); specialize (R2 eq_refl); cbn [key] in *; lia.
  - destruct (translate_labels_unique B cdefs crefs LO all_true xtor_ok pr_inj_xtors _ _ _ _ _ G1 H1) as (_ & _ & K1).
    destruct (translate_labels_unique B cdefs crefs LO all_true xtor_ok pr_inj_xtors _ _ _ _ _ G2 H2) as (_ & _ & K2).
    destruct (K1 l I1) as (g1 & E1 & U1 & R1). destruct (K2 l I2) as (g2 & E2 & U2 & R2).
    assert (g1 = g2) by (apply pr_inj_xtors; [exact U1|exact U2|congruence]). subst g2.
    destruct g1 as [s|k|T k|T k X]; [exists s; split; [exact E1|exact U1]| | |];
      specialize (R1 eq_refl); specialize (R2 eq_refl); cbn [key] in *; lia.
Qed.
End Generic.

(* a routine: code whose labels are distinct and do not include the two fixed ones, between a piece that defines only
   `asm_main` and one that defines only `cleanup`, neither referencing anything *)
Lemma routine_labels {Code} (cdefs crefs : Code -> list string) (pre body post : list Code) :
  LabelGen.defs cdefs pre = ["asm_main"] -> LabelGen.refs crefs pre = [] ->
  LabelGen.defs cdefs post = ["cleanup"] -> LabelGen.refs crefs post = [] ->
  NoDup (LabelGen.defs cdefs body) -> ~ In "cleanup" (LabelGen.defs cdefs body) -> ~ In "asm_main" (LabelGen.defs cdefs body) ->
  (forall l, In l (LabelGen.refs crefs body) -> In l (LabelGen.defs cdefs body) \/ l = "cleanup") ->
  NoDup (LabelGen.defs cdefs (pre ++ body ++ post)) /\
  incl (LabelGen.refs crefs (pre ++ body ++ post)) (LabelGen.defs cdefs (pre ++ body ++ post)).
Proof.
  intros D1 R1 D2 R2 N C1 C2 R. rewrite !(defs_app cdefs), !(refs_app crefs), D1, R1, D2, R2, app_nil_r. cbn [app]. split.
  - constructor.
    + intros X. apply in_app_or in X as [X|[X|[]]]; [exact (C2 X)|discriminate].
    + apply NoDup_app_intro; [exact N|constructor; [intros []|constructor]|]. intros l X [<-|[]]. exact (C1 X).
  - intros l Hl. right. apply in_or_app. destruct (R l Hl) as [X| ->]; [left; exact X|right; left; reflexivity].
Qed.

Lemma nolab_args_x86 : forall n x, X86.move_arguments n = Ok x -> forallb LabelsX86.nolab x = true.
Proof.
  induction n as [|n IH]; intros x E; cbn [X86.move_arguments] in E; [inversion E; reflexivity|].
  destruct (Nat.ltb 5 (S n)); [discriminate|]. rinv E. inversion E; subst. cbn [app forallb LabelsX86.nolab andb]. apply (IH _ E0).
Qed.
Lemma nolab_setup_x86 n s : X86.setup n = Ok s -> forallb LabelsX86.nolab s = true.
Proof.
  unfold X86.setup. intros H. rinv H. inversion H; subst. cbn [app forallb LabelsX86.nolab andb]. apply (nolab_args_x86 _ _ E).
Qed.
Theorem x86_routine_labels p lc r n lc' :
  labels_guard p = true -> calls_guard p = true -> x86_compile p lc = Ok (r, n, lc') ->
  NoDup (LabelGen.defs xdefs r) /\ incl (LabelGen.refs X86Wf.referenced r) (LabelGen.defs xdefs r) /\ (lc <= lc')%N.
Proof.
  unfold x86_compile, x86_compile_with, into_x86_64_routine. intros G1 G2 H. rstep H. destruct x as [[is n0] l0]. rinv H. inversion H; subst. clear H.
  match goal with E0 : rbind _ _ = Ok _ |- _ => rename E0 into ES end. rstep ES. rename E0 into E1.
  match type of ES with Ok ?t = Ok ?v => assert (EV : v = t) by congruence; subst v; clear ES end.
  destruct (compile_labels_unique x86_backend xdefs X86Wf.referenced x86_labels_ok _ _ _ _ _ G1 E) as (N & L & C1 & C2).
  pose proof (compile_refs_defined x86_backend xdefs X86Wf.referenced x86_labels_ok _ _ _ _ _ G2 E) as R.
  destruct (LabelsX86.nolab_plain _ (nolab_setup_x86 _ _ E1)) as [D0 R0].
  rewrite (app_assoc X86.preamble).
  destruct (routine_labels xdefs X86Wf.referenced (X86.preamble ++ x) is X86.cleanup) as [ND RF]; try reflexivity; try assumption.
  - rewrite (defs_app xdefs), D0. reflexivity.
  - exact (conj ND (conj RF L)).
Qed.

Lemma nolab_args_a64 : forall n x, A64.move_arguments n = Ok x -> forallb LabelsA64.nolab x = true.
Proof.
  induction n as [|n IH]; intros x E; cbn [A64.move_arguments] in E; [inversion E; reflexivity|].
  destruct (Nat.ltb 7 (S n)); [discriminate|]. rinv E. inversion E; subst. cbn [app forallb LabelsA64.nolab andb]. apply (IH _ E0).
Qed.
Lemma nolab_setup_a64 n s : A64.setup n = Ok s -> forallb LabelsA64.nolab s = true.
Proof.
  unfold A64.setup. intros H. rinv H. inversion H; subst. cbn [app forallb LabelsA64.nolab andb]. rewrite forallb_app.
  rewrite (nolab_args_a64 _ _ E). reflexivity.
Qed.
Theorem a64_routine_labels p lc r n lc' :
  labels_guard p = true -> calls_guard p = true -> a64_compile p lc = Ok (r, n, lc') ->
  NoDup (LabelGen.defs A64Wf.all_defs r) /\ incl (LabelGen.refs A64Wf.referenced r) (LabelGen.defs A64Wf.all_defs r) /\ (lc <= lc')%N.
Proof.
  unfold a64_compile, a64_compile_with, into_aarch64_routine. intros G1 G2 H. rstep H. destruct x as [[is n0] l0]. rinv H. inversion H; subst. clear H.
  match goal with E0 : rbind _ _ = Ok _ |- _ => rename E0 into ES end. rstep ES. rename E0 into E1.
  match type of ES with Ok ?t = Ok ?v => assert (EV : v = t) by congruence; subst v; clear ES end.
  change (a64_backend_with (fun _ => [])) with a64_backend in E.
  destruct (compile_labels_unique a64_backend A64Wf.all_defs A64Wf.referenced a64_labels_ok _ _ _ _ _ G1 E) as (N & L & C1 & C2).
  pose proof (compile_refs_defined a64_backend A64Wf.all_defs A64Wf.referenced a64_labels_ok _ _ _ _ _ G2 E) as R.
  destruct (LabelsA64.nolab_plain _ (nolab_setup_a64 _ _ E1)) as [D0 R0].
  rewrite (app_assoc A64.preamble).
  destruct (routine_labels A64Wf.all_defs A64Wf.referenced (A64.preamble ++ x) is A64.cleanup) as [ND RF]; try reflexivity; try assumption.
  - rewrite (defs_app A64Wf.all_defs), D0. reflexivity.
  - exact (conj ND (conj RF L)).
Qed.

(* the RISC-V instruction list does not contain `cleanup:`; the routine text appends it *)
Theorem rv_routine_labels p lc c n lc' :
  labels_guard p = true -> calls_guard p = true -> rv_compile p lc = Ok (c, n, lc') ->
  NoDup ("cleanup" :: LabelGen.defs RVWf.all_defs c)
  /\ incl (LabelGen.refs RVWf.referenced c) ("cleanup" :: LabelGen.defs RVWf.all_defs c) /\ (lc <= lc')%N.
Proof.
  unfold rv_compile. intros G1 G2 H. destruct (prog_has_print p); [discriminate|].
  destruct (compile_labels_unique rv_backend RVWf.all_defs RVWf.referenced rv_labels_ok _ _ _ _ _ G1 H) as (N & L & C1 & C2).
  pose proof (compile_refs_defined rv_backend RVWf.all_defs RVWf.referenced rv_labels_ok _ _ _ _ _ G2 H) as R.
  split; [constructor; assumption|]. split; [|exact L].
  intros l Hl. destruct (R l Hl) as [X| ->]; [right; exact X|left; reflexivity].
Qed.

(* the guard cannot be dropped; it is satisfiable *)
(* main: switch on Aa (one clause Bx_2_Cy); inside, switch on Aa_1_Bx (one clause Cy): the counter
   gives the outer switch 1 and the inner one 2, so both clause labels read Aa_1_Bx_2_Cy *)
Definition collide_prog : prog :=
  let v : ident := ("v", 0%N) in
  mkp [mkd ("main", 0%N) []
         (Switch v (Decl ("Aa", 0%N))
            [(("Bx_2_Cy", 0%N), [], Switch v (Decl ("Aa_1_Bx", 0%N)) [(("Cy", 0%N), [], Call ("main", 0%N) [])])])]
      [] 0%N.
Theorem compile_labels_unique_refuted :
  unguarded_labels_guard collide_prog = true /\ calls_guard collide_prog = true /\
  exists c n lc', compile x86_backend collide_prog 0 = Ok (c, n, lc') /\ ~ NoDup (LabelGen.defs xdefs c).
Proof.
  split; [reflexivity|]. split; [reflexivity|]. eexists _, _, _. split; [vm_compute; reflexivity|].
  intros N. cbn in N. inversion N as [|? ? _ N1]; subst. inversion N1 as [|? ? _ N2]; subst. inversion N2 as [|? ? X _]; subst.
  apply X. right. left. reflexivity.
Qed.
(* the same program with neutral names passes the guard and (hence) has distinct labels *)
Definition distinct_prog : prog :=
  let v : ident := ("v", 0%N) in
  mkp [mkd ("main", 0%N) []
         (Switch v (Decl ("Aa", 0%N))
            [(("Bx", 0%N), [], Switch v (Decl ("List[i64]", 0%N)) [(("Cy", 0%N), [], Call ("main", 0%N) [])])]);
       mkd ("lab3", 0%N) [mkb ("x", 1%N) Ext I64] (IfC Eq ("x", 1%N) None (Call ("cleanup", 0%N) []) (Call ("lab3", 0%N) []));
       mkd ("cleanup", 0%N) [] (Call ("lab3", 0%N) [])]
      [] 0%N.
Example labels_guard_satisfiable :
  labels_guard distinct_prog = true /\ calls_guard distinct_prog = true /\
  LabelGen.defs xdefs (match compile x86_backend distinct_prog 7 with Ok (c, _, _) => c | Err _ => [] end)
  = ["main_"; "Aa_8"; "Aa_8_Bx"; "List_i64_9"; "List_i64_9_Cy"; "lab3_"; "lab10"; "cleanup_"].
Proof. vm_compute. split; [reflexivity|]. split; reflexivity. Qed.
