(* C01: the composition with ALL middle links discharged by proved stage theorems:
     Fun -> Core        C02_fun2core_correct_fragment2            (guard: prog_guard, definition names distinct)
     Core -> focused    C03_uniquify_focus_preserves_static       (guards: pre_check, focus_wf, cs_prog, static_ok)
     focused -> AxCut   C04_shrink_correct_fragment2              (guards: frag2_prog, decls_ok, wt_fs, unique_binders, ids_bounded)
     AxCut -> linear    C05 linearize_preserves                   (guard: prog_ok)
   All guards are BOOLEAN predicates on programs the statement names; the run-time check evaluates every one of
   them on the real stage outputs (tags proved-fragment2 / thm-static / proved-sem).  The one remaining
   hypothesis is the x86-64 code generation link (Proof/ComposeFull.v replaces it by the C06 theorem for all
   statement forms). *)
From Coq Require Import List ZArith NArith String Ascii Bool Lia.
From SCC Require Import Base.Sexp Lang.AxSyn Lang.FunSyn Lang.CoreSyn Sem.AxSem Sem.CoreSem Sem.FunSem Sem.X86Sem Sem.FsCheck Sem.FsFrag2
     Model.Backend Model.Fun2Core Model.Fun2CoreGuard Model.Focus Model.FocusCheck Model.FocusGuard Model.Shrink Model.Linearize Model.LinCheck
     Model.X86 Model.Runtime
     Proof.RuntimeProof Proof.LinSim Proof.Compose Proof.ComposeFocus Proof.ComposeF2C Proof.Compose2
     Proof.Fun2CoreRel Proof.Fun2CoreProg Proof.FocusRun Proof.FocusFrag Proof.UqAeq Proof.UqCompose Proof.ShrinkSem Proof.ShrinkSimClosed.
From SCC Require Import Model.PipelineGuards Proof.Fun2CoreExamples.
Import ListNotations.
Open Scope Z_scope.

(* the four middle links: a source run that ends with a result is a run of the linearized program *)
Lemma middle_links :
  forall (p : fcprog) (c : cprog) (f : fsprog) (a : prog) (args : list Z) (n : nat) (o : obs),
    NoDup (map fdname (fcpdefs p)) -> prog_guard p = true ->
    compile_prog p = Fun2Core.Ok c ->
    pre_check c = true -> focus_wf c = true -> cs_prog c = true -> static_ok c = true ->
    focus_prog c = Backend.Ok f ->
    frag2_prog f = true -> decls_ok f = true -> wt_fs f = true -> unique_binders f = true -> ids_bounded f = true ->
    shrink_prog f = SOk a ->
    prog_ok a = true ->
    run_fun n p args = o -> out_ok o ->
    defined o = true /\ exists m, run_linear m (linearize a) args = o.
Proof.
  intros p c f a args n o Hnd Hgd Hc Hpre Hwf Hcs ST Hf F1 F2 F3 F4 F5 Hs Hok Hrun OK.
  pose proof (out_ok_defined o OK) as D. split; [exact D|].
  apply (chain_to_linear c f a args o OK);
    [exact (fun2core_correct_fragment_lemma p c args n o Hc Hnd Hgd Hrun (defined_final o D))
    |exact (focus_static_link c f args o Hpre Hwf Hcs ST Hf OK)
    |intros m R; exact (shrink_correct_fragment2_closed f a m args o F1 F2 F3 F4 F5 Hs R (out_ok_good o OK)) | exact Hok].
Qed.

Section PipelineAll.
Hypothesis x86_codegen_correct : link_x86.

Theorem compile_correct_middle_discharged :
  forall (p : fcprog) (c : cprog) (f : fsprog) (a : prog) (cs : list xcode) (nargs : nat) (lc lc' : N)
         (args : list Z) (n : nat) (o : obs),
    (* source program: inside the guard of the Fun -> Core theorem *)
    NoDup (map fdname (fcpdefs p)) -> prog_guard p = true ->
    compile_prog p = Fun2Core.Ok c ->
    (* Core program: inside the guards of the uniquify + focus theorem *)
    pre_check c = true -> focus_wf c = true -> cs_prog c = true -> static_ok c = true ->
    focus_prog c = Backend.Ok f ->
    (* focused program: inside the guards of the shrink theorem *)
    frag2_prog f = true -> decls_ok f = true -> wt_fs f = true -> unique_binders f = true -> ids_bounded f = true ->
    shrink_prog f = SOk a ->
    (* AxCut program: the linearizer's precondition *)
    prog_ok a = true ->
    x86_compile (linearize a) lc = Backend.Ok (cs, nargs, lc') ->
    run_fun n p args = o -> out_ok o ->
    (exists outer inner, fst (run_x86 outer inner cs args) = o) /\
    (Forall (fun pz => in_i64 (snd pz)) (fst o) ->
     bytes_of_string (render_prints (fst o)) = flat_map runtime_bytes (fst o)).
Proof.
  intros p c f a cs nargs lc lc' args n o Hnd Hgd Hc Hpre Hwf Hcs ST Hf F1 F2 F3 F4 F5 Hs Hok Hx Hrun Hout.
  destruct (middle_links p c f a args n o) as (D & m & R); auto.
  split; [exact (x86_codegen_correct (linearize a) lc cs nargs lc' args m o Hx R D) | apply render_prints_is_runtime_output].
Qed.
End PipelineAll.

(* non-vacuity: the guards as one executable list, and concrete programs inside all of them *)
Lemma pipeline_guards_examples :
  forallb (fun p => forallb (fun b => b) (pipeline_guards p)) [ex_calls; ex_shared; ex_data; ex_labels; ex_codata] = true.
Proof. vm_compute. reflexivity. Qed.

(* and the conclusion itself, computed on both ends for one of them (no hypothesis involved) *)
Definition end_to_end_agree (p : fcprog) (args : list Z) (n outer inner : nat) : bool :=
  match pipeline_stages p with
  | Some (_, _, a) =>
      match x86_compile (linearize a) 0 with
      | Backend.Ok (cs, _, _) =>
          let o := run_fun n p args in
          defined o && obs_eqb (fst (run_x86 outer inner cs args)) o
      | _ => false
      end
  | None => false
  end.
Lemma end_to_end_example :
  end_to_end_agree ex_data [6] 2000 2000 2000 = true /\ end_to_end_agree ex_labels [5] 2000 2000 2000 = true
  /\ end_to_end_agree ex_codata [4] 4000 2000 2000 = true.
Proof. vm_compute. repeat split; reflexivity. Qed.
