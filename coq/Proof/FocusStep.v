(* C03, semantic preservation: administrative runs of the focused program (argument lists
   of variables, the cut that performs an operation, ifc/print/exit on variables) and the end of an
   argument list ([finish_sim]): the statement built by the vector continuation of `bind_many`
   reaches what [finish_args] reaches in the source. *)
From Coq Require Import List ZArith NArith String Bool Lia.
From SCC Require Import Base.Sexp Lang.CoreSyn Sem.AxSem Sem.CoreSem Model.Backend Model.Uniquify Model.Focus
     Model.FocusCheck Proof.FocusKont Proof.FocusRel Proof.FocusMono Proof.FocusSim.
From SCC Require Import Model.FocusGuard.
Import ListNotations.
Open Scope list_scope.
Open Scope N_scope.

Section Step.
Variables (ps qt : cprog) (M0 : N).
Hypothesis Hcod : forall ty, is_codata qt ty = is_codata ps ty.
(* the definitions of the target are the focused definitions of the source *)
Hypothesis Hdefs : forall f d, cfind_def ps f = Some d ->
  exists b' mc m2, focus_stmt (cdbody d) mc = Ok (b', m2) /\ M0 <= mc /\ ids_le_stmt M0 (cdbody d) = true /\
                   cfind_def qt f = Some (mkcd (cdname d) (cdctx d) (fs2c_stmt b')).

Notation V := (V ps M0).
Notation Vs := (Vs ps M0).
Notation env_rel := (env_rel ps M0).
Notation mk_rel := (mk_rel ps M0).
Notation kv_rel := (kv_rel ps M0).
Notation crel := (crel ps M0).
Notation tsteps := (tsteps qt).
Notation thalt := (thalt qt).
Notation sres_sim := (sres_sim ps qt M0).
Notation sres_rel := (sres_rel ps M0).

(* the binding [b] holds [v'] in [e'] and its chirality is that of the value *)
Definition look (e' : cenv) (b : cbinding) (v' : bval) : Prop :=
  clookup e' (cbvar b) = Some v' /\ bkind v' = cbchi b.

Lemma fs_arg_step : forall e' b v' m, look e' b v' -> cstep qt (Arg (fs_arg b) e' m) = SNext (App m v').
Proof.
  intros e' b v' m [L K]. unfold fs_arg. destruct (cbchi b); destruct v' as [pv|kv]; simpl in K; try discriminate;
    simpl; rewrite L; reflexivity.
Qed.

Lemma fs_args_run : forall bs vs' e' f, Forall2 (look e') bs vs' ->
  forall done b v', look e' b v' ->
  exists c1', tsteps (Arg (fs_arg b) e' (MArgs done (map fs_arg bs) e' f)) [] c1' /\
              cstep qt c1' = finish_args qt f (rev_append done [] ++ v' :: vs').
Proof.
  induction 1 as [|b2 v2 bs vs' L2 HF IH]; intros done b v' L.
  - exists (App (MArgs done [] e' f) v'). split.
    + eapply tsteps_next; [apply fs_arg_step; exact L | apply tsteps_refl].
    + simpl. rewrite !rev_append_rev. simpl. rewrite ?app_nil_r. reflexivity.
  - destruct (IH (v' :: done) b2 v2 L2) as (c1' & T & S).
    exists c1'. split.
    + eapply tsteps_next; [apply fs_arg_step; exact L|].
      eapply tsteps_next; [simpl; reflexivity|]. exact T.
    + rewrite S. f_equal. simpl. rewrite !rev_append_rev. simpl. rewrite ?app_nil_r, <- ?app_assoc. reflexivity.
Qed.

Lemma fs_start_run : forall bs vs' e' f c0', Forall2 (look e') bs vs' ->
  cstep qt c0' = start_args qt (map fs_arg bs) e' f ->
  exists c1', tsteps c0' [] c1' /\ cstep qt c1' = finish_args qt f vs'.
Proof.
  intros bs vs' e' f c0' HF S. destruct HF as [|b v' bs vs' L HF].
  - exists c0'. split; [apply tsteps_refl | exact S].
  - simpl in S. destruct (fs_args_run _ _ _ f HF [] b v' L) as (c1' & T & S1).
    exists c1'. split; [eapply tsteps_next; [exact S | exact T] | exact S1].
Qed.

(* unwinding the accumulated bindings *)
Lemma kv_unwind : forall c done f kv e', kv_rel c done f kv e' ->
  exists bs0 vs0' kvf,
    (forall bs m, kv bs m = kvf (bs0 ++ bs) m) /\ Forall2 (look e') bs0 vs0' /\ Vs (rev done) vs0' /\
    kv_rel c [] f kvf e'.
Proof.
  induction 1 as [c v v' done f b kv e' L HV HK HB R IH| | | | |];
    try (eexists [], [], _; repeat split; [constructor | constructor | econstructor; eauto]).
  destruct IH as (bs0 & vs0' & kvf & EQ & LK & VR & FR).
  exists (bs0 ++ [b]), (vs0' ++ [v']), kvf. repeat split.
  - intros bs m. unfold cons_kv. rewrite EQ, <- app_assoc. reflexivity.
  - apply Forall2_app; [exact LK|]. constructor; [|constructor]. split; [exact L|].
    rewrite (V_kind _ _ _ _ HV). exact HK.
  - simpl. apply Vs_app; [exact VR|]. constructor; [exact HV | constructor].
  - exact FR.
Qed.

(* focus_term never returns an xtor or an operator *)
Lemma focus_term_shape : forall c t m t' m', focus_term c t m = Ok (t', m') ->
  match t' with FsXtor _ _ _ _ | FsOp _ _ _ => False | _ => True end.
Proof.
  intros c t m t' m' H. destruct t; simpl in H.
  - okinv H. exact I.
  - destruct c; [okinv H; exact I | discriminate].
  - destruct c; discriminate.
  - rinv H. okinv H. exact I.
  - discriminate.
  - rinv H. okinv H. exact I.
Qed.

(* the end of an argument list *)
Lemma finish_sim : forall c f kvf e' bs vs vs' mc sk m2,
  kv_rel c [] f kvf e' -> kvf bs mc = Ok (sk, m2) -> M0 <= c -> c <= mc ->
  Forall2 (look e') bs vs' -> Vs vs vs' ->
  sres_sim (finish_args ps f vs) (Run (fs2c_stmt sk) e').
Proof.
  intros c f kvf e' bs vs vs' mc sk m2 R K L0 L1 LK HV.
  inversion R; subst.
  - (* xtor producer as an argument *)
    unfold xtorP_kv in K. simpl in K. rb2 K f0 mk0 E. okinv K. simpl finish_args.
    destruct (fs_start_run bs vs' e' (FinXtorP tag (MCutK (CMu CCns ("x"%string, mc + 1) (fs2c_stmt f0) ty) e'))
                (Run (fs2c_stmt (FsCut (FsXtor c' tag bs ty) ty (FsMu CCns ("x"%string, mc + 1) f0 ty))) e') LK)
      as (c1' & T & S); [reflexivity|].
    simpl in S.
    eapply sres_rel_sim with (c1' := App (MCutK (CMu CCns ("x"%string, mc + 1) (fs2c_stmt f0) ty) e') (BP (PCtor tag vs'))).
    2: { eapply tsteps_trans0; [exact T|]. eapply tsteps_next; [exact S | apply tsteps_refl]. }
    2: { simpl. reflexivity. }
    eexists. split; [reflexivity|].
    eapply (crel_resume ps M0) with (b := mkcb ("x"%string, mc + 1) CPrd ty) (c := c); eauto; simpl; try lia.
    constructor; exact HV.
  - (* xtor consumer as an argument *)
    unfold xtorK_kv in K. simpl in K. rb2 K f0 mk0 E. okinv K. simpl finish_args.
    destruct (fs_start_run bs vs' e'
                (FinXtorK tag (MCutP (is_codata qt ty) (CMu CPrd ("a"%string, mc + 1) (fs2c_stmt f0) ty) e'))
                (Run (fs2c_stmt (FsCut (FsMu CPrd ("a"%string, mc + 1) f0 ty) ty (FsXtor c' tag bs ty))) e') LK)
      as (c1' & T & S); [reflexivity|].
    simpl in S.
    eapply sres_rel_sim with
      (c1' := App (MCutP (is_codata qt ty) (CMu CPrd ("a"%string, mc + 1) (fs2c_stmt f0) ty) e') (BK (KDtor tag vs'))).
    2: { eapply tsteps_trans0; [exact T|]. eapply tsteps_next; [exact S | apply tsteps_refl]. }
    2: { simpl. destruct (is_codata qt ty); reflexivity. }
    eexists. split; [reflexivity|].
    eapply (crel_resume ps M0) with (b := mkcb ("a"%string, mc + 1) CCns ty) (c := c); eauto; simpl; try lia.
    constructor; exact HV.
  - (* cut with a constructor *)
    unfold cutP_kv in K. rb2 K f0 mk0 E. okinv K. simpl finish_args.
    destruct (fs_start_run bs vs' e' (FinXtorP tag (MCutK (fs2c_term f0) e'))
                (Run (fs2c_stmt (FsCut (FsXtor pc tag bs ty) ty f0)) e') LK) as (c1' & T & S); [reflexivity|].
    simpl in S.
    eapply sres_rel_sim; [|exact T|exact S].
    eexists. split; [reflexivity|]. eapply CR_cutK; eauto; try lia. constructor; exact HV.
  - (* cut with a destructor *)
    unfold cutK_kv in K. rb2 K f0 mk0 E. okinv K. simpl finish_args.
    pose proof (focus_term_shape _ _ _ _ _ E) as SH.
    destruct (fs_start_run bs vs' e' (FinXtorK tag (MCutP (is_codata qt ty) (fs2c_term f0) e'))
                (Run (fs2c_stmt (FsCut f0 ty (FsXtor qc tag bs ty))) e') LK) as (c1' & T & S).
    { destruct f0; try contradiction; reflexivity. }
    simpl in S.
    eapply sres_rel_sim; [|exact T|exact S].
    eexists. split; [reflexivity|]. rewrite Hcod. eapply CR_cutP; eauto; try lia. constructor; exact HV.
  - (* call *)
    unfold call_kv in K. okinv K. simpl finish_args.
    destruct (cfind_def ps f0) as [d|] eqn:FD; [|exact I].
    destruct (Hdefs _ _ FD) as (b' & mcd & m2d & FB & LB & IB & FD').
    destruct (cbind (cvars (cdctx d)) vs []) as [e1|] eqn:B; [|exact I].
    destruct (cbind_rel ps M0 _ _ _ _ _ _ HV (ER_nil ps M0) B) as (e1' & B' & R1).
    destruct (fs_start_run bs vs' e' (FinCall f0) (Run (fs2c_stmt (FsCall f0 bs)) e') LK) as (c1' & T & S); [reflexivity|].
    simpl in S. rewrite FD' in S. simpl in S. rewrite B' in S.
    eapply sres_rel_sim; [|exact T|exact S].
    eexists. split; [reflexivity|]. eapply CR_run; eauto.
Qed.

(* the start of an argument list *)
Lemma start_sim : forall args kv mc s' m2 c f e e',
  bind_many args kv mc = Ok (s', m2) -> kv_rel c [] f kv e' -> M0 <= c -> c <= mc ->
  forallb (ids_le_arg M0) args = true -> env_rel e e' ->
  sres_sim (start_args ps args e f) (Run (fs2c_stmt s') e').
Proof.
  intros args kv mc s' m2 c f e e' B R L0 L1 IA E.
  destruct args as [|a r].
  - rewrite bind_many_nil in B. simpl start_args.
    eapply finish_sim with (bs := []) (vs' := []); eauto; constructor.
  - rewrite bind_many_cons in B. simpl start_args. simpl in IA. apply andb_true_iff in IA. destruct IA as [IA1 IA2].
    eexists. split; [apply tsteps_refl|].
    eapply CR_arg with (c := c); eauto. apply MR_args; assumption.
Qed.

(* administrative statements on variables *)
Lemma t_var : forall e' v pv m, clookup e' v = Some (BP pv) ->
  cstep qt (Arg (CProducer (fs_var v)) e' m) = SNext (App m (BP pv)).
Proof. intros e' v pv m L. simpl. rewrite L. reflexivity. Qed.

Lemma t_op : forall e' a1 a2 x y o ty K, not_xtor K ->
  clookup e' a1 = Some (BP (PInt x)) -> clookup e' a2 = Some (BP (PInt y)) ->
  tsteps (Run (CCut (COp (fs_var a1) o (fs_var a2)) ty K) e') [] (App (MOpR o x (MCutK K e')) (BP (PInt y))).
Proof.
  intros e' a1 a2 x y o ty K NK L1 L2.
  eapply tsteps_next. { destruct K; try contradiction; reflexivity. }
  eapply tsteps_next. { apply t_var; exact L1. }
  eapply tsteps_next. { reflexivity. }
  eapply tsteps_next. { apply t_var; exact L2. }
  apply tsteps_refl.
Qed.

Lemma t_if1 : forall e' a x so t el,
  clookup e' a = Some (BP (PInt x)) ->
  tsteps (Run (CIfC so (fs_var a) None t el) e') [] (Run (if eval_cmp (ax_ifsort so) x 0 then t else el) e').
Proof.
  intros e' a x so t el L.
  eapply tsteps_next. { reflexivity. }
  eapply tsteps_next. { apply t_var; exact L. }
  eapply tsteps_next. { reflexivity. }
  apply tsteps_refl.
Qed.
Lemma t_if2 : forall e' a b x y so t el,
  clookup e' a = Some (BP (PInt x)) -> clookup e' b = Some (BP (PInt y)) ->
  tsteps (Run (CIfC so (fs_var a) (Some (fs_var b)) t el) e') [] (Run (if eval_cmp (ax_ifsort so) x y then t else el) e').
Proof.
  intros e' a b x y so t el L1 L2.
  eapply tsteps_next. { reflexivity. }
  eapply tsteps_next. { apply t_var; exact L1. }
  eapply tsteps_next. { reflexivity. }
  eapply tsteps_next. { apply t_var; exact L2. }
  eapply tsteps_next. { reflexivity. }
  apply tsteps_refl.
Qed.
Lemma t_print : forall e' a z nl next,
  clookup e' a = Some (BP (PInt z)) -> tsteps (Run (CPrint nl (fs_var a) next) e') [(nl, z)] (Run next e').
Proof.
  intros e' a z nl next L.
  eapply tsteps_next. { reflexivity. }
  eapply tsteps_next. { apply t_var; exact L. }
  apply tsteps_print. reflexivity.
Qed.
Lemma t_exit : forall e' a z ty, clookup e' a = Some (BP (PInt z)) -> thalt (Run (CExit (fs_var a) ty) e') (OExit z).
Proof.
  intros e' a z ty L.
  eapply thalt_steps.
  - eapply tsteps_next. { reflexivity. } eapply tsteps_next. { apply t_var; exact L. } apply tsteps_refl.
  - apply thalt_now. reflexivity.
Qed.

End Step.
