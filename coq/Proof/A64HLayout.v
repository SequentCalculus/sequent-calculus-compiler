(* C07, heap statements on AArch64: where the clauses of a Switch / a Create sit in the image and how control
   reaches them (x86-64: Proof/X86HLayout.v).
     gclauses             the code of the clauses, generically in the load code and the body context
                          (Create: load the captured environment after the clause context; Switch: load the
                          clause context after the rest of the context);
     cs_let / cs_switch   what `code_statement` emits for Let / Switch; the clause code of Create as `gclauses`;
     stmt_ne, acs_ends_nz the code of a statement all of whose clause lists are non-empty ends with an instruction
                          of non-zero size (so a real instruction follows every label of it);
     dispatch_layout_exec / dispatch_layout
                          `LAB fresh; jump table (for two or more clauses); clauses`: the address of the label
                          (+ 4k for table entry k) leads to the code `load ++ body` of clause k.

   DIFFERENCES FROM x86-64.  There `index_at` keeps the FIRST index placed at an address, and one walks
   forward over the labels to any instruction at that address (`back_ok`, `mk_image_back`).  On AArch64 `index_at`
   records only instructions of non-zero size (Proof/A64SimAddr.v): `BR` to the address of an index lands on the
   first real instruction at or after it, the labels in between are skipped.  So there is no `back_ok`; instead
     - two or more clauses: the address a + 4k IS the address of table entry k, a real instruction (`B clause_k`):
       the landing index is the entry and an `exec_to` leads from it to the clause code (state unchanged);
     - at most one clause (`LAB fresh; LAB fresh_x; load ++ body`): falling through from the label is an `exec_to`
       over the two labels; an indirect branch to the address of `LAB fresh` lands INSIDE `load ++ body` (after
       its leading labels) or later, and all one can say is "every run from the start of the clause code
       continues from the landing index" (`finishes`-form, as `clo_ok` of Proof/A64SimClo.v has it).  For the
       landing index to exist at all a real instruction must follow: hypothesis `ends_nz c5` of this case
       (x86-64 needs none; `gclauses_ends_nz` + `acs_ends_nz` discharge it for statements with non-empty clause
       lists - the captureless fragment `stmt_cf` of Proof/SimFrag.v asks for the same).
   WITHOUT a hypothesis on the program: `fwd_ok im` (every placed instruction is followed, after zero-size
   pseudo-instructions only, by a real one) is the AArch64 counterpart of `back_ok`; it holds for the image of any
   code that ends with a real instruction (`mk_image_fwd`), in particular of the compiled routine, which ends with
   the RET of `cleanup` (`routine_image_fwd`); `fwd_land` gives the landing index of the address of any placed
   index, and `dispatch_layout_fwd` is `dispatch_layout` from `img_ok` and `fwd_ok` alone. *)
From Coq Require Import List ZArith NArith String Bool Lia FMapPositive.
From SCC Require Import Base.Sexp Lang.AxSyn Sem.AxSem Model.ParMoves Model.Backend Model.A64 Sem.A64Sem
     Model.Linearize Model.LinCheck Generated.Constants Proof.LinBasics
     Proof.A64State Proof.A64ImmHw Proof.A64Imm Proof.A64Sel Proof.A64PM Proof.A64Exec
     Proof.A64MemSubst Proof.SubstGraph Proof.SubstBackends Proof.A64Subst Proof.A64Wf Proof.A64Print
     Proof.A64SimRel Proof.A64SimStmt Proof.A64SimAddr Proof.A64SimClo.
Import ListNotations.
Open Scope Z_scope.
Open Scope list_scope.

Section GC.
Variables (types : list tydecl) (ld : ctx -> N -> res (list acode * N)) (bc : ctx -> ctx) (fresh : string).
Fixpoint gclauses (l : list clause) (lc : N) {struct l} : res (list acode * N) :=
  match l with
  | [] => Ok ([], lc)
  | (x, cx, body) :: r =>
      dor ldc <- ld cx lc;
      let '(cl, lc1) := ldc in
      dor bd <- acs types body (bc cx) lc1;
      let '(cb, lc2) := bd in
      dor rs <- gclauses r lc2;
      let '(cr, lc3) := rs in
      Ok ([LAB (fresh +++ "_" +++ show_ident x)] ++ cl ++ cb ++ cr, lc3)
  end.

Lemma gclauses_nth : forall cls lc c5 lc' k x cx body,
  gclauses cls lc = Ok (c5, lc') -> nth_error cls k = Some (x, cx, body) ->
  exists pre lc0 cl lc1 cb lc2 post,
    c5 = pre ++ [LAB (fresh +++ "_" +++ show_ident x)] ++ cl ++ cb ++ post /\
    ld cx lc0 = Ok (cl, lc1) /\ acs types body (bc cx) lc1 = Ok (cb, lc2) /\ (k = O -> pre = []).
Proof.
  induction cls as [|[[x0 cx0] body0] r IH]; intros lc c5 lc' k x cx body H Hk; [destruct k; discriminate|].
  cbn [gclauses] in H.
  destruct (ld cx0 lc) as [[cl lc1]|] eqn:LD; cbn [rbind] in H; [|discriminate].
  destruct (acs types body0 (bc cx0) lc1) as [[cb lc2]|] eqn:BD; cbn [rbind] in H; [|discriminate].
  destruct (gclauses r lc2) as [[cr lc3]|] eqn:RS; cbn [rbind] in H; [|discriminate].
  inversion H; subst c5 lc'. destruct k as [|k]; cbn [nth_error] in Hk.
  - inversion Hk; subst. exists [], lc, cl, lc1, cb, lc2, cr. auto.
  - destruct (IH _ _ _ _ _ _ _ RS Hk) as (pre & lc0 & cl' & lc1' & cb' & lc2' & post & -> & L & B & _).
    exists ([LAB (fresh +++ "_" +++ show_ident x0)] ++ cl ++ cb ++ pre), lc0, cl', lc1', cb', lc2', post.
    split; [|split; [auto|split; [auto|discriminate]]]. rewrite <- !app_assoc. reflexivity.
Qed.

(* the code of a non-empty clause list ends with a real instruction if the bodies do *)
Lemma gclauses_ends_nz : forall cls lc c5 lc',
  Forall (fun c => forall ct lc code lc', acs types (cl_body c) ct lc = Ok (code, lc') -> ends_nz code) cls ->
  cls <> [] -> gclauses cls lc = Ok (c5, lc') -> ends_nz c5.
Proof.
  induction cls as [|[[x cx] body] r IH]; intros lc c5 lc' FA NE H; [congruence|].
  cbn [gclauses] in H.
  destruct (ld cx lc) as [[cl lc1]|] eqn:LD; cbn [rbind] in H; [|discriminate].
  destruct (acs types body (bc cx) lc1) as [[cb lc2]|] eqn:BD; cbn [rbind] in H; [|discriminate].
  destruct (gclauses r lc2) as [[cr lc3]|] eqn:RS; cbn [rbind] in H; [|discriminate].
  inversion H; subst c5 lc'. inversion FA as [|? ? P0 FA']; subst. cbn [cl_body snd] in P0.
  apply (ends_nz_app [_]), ends_nz_app. destruct r as [|c' r'].
  - cbn [gclauses] in RS. inversion RS; subst. rewrite app_nil_r. exact (P0 _ _ _ _ BD).
  - apply ends_nz_app. eapply IH; eauto. discriminate.
Qed.
End GC.

Lemma cs_let types v t tag args next c lc code lc' :
  acs types (Let v t tag args next) c lc = Ok (code, lc') ->
  exists d k rest arguments c1 lc1 tmpv c3,
    lookup_type types t = Ok d /\ xtor_position (txtors d) tag 0 = Ok k /\
    Backend.split_last (List.length args) c = Ok (rest, arguments) /\
    a_store arguments rest lc = Ok (c1, lc1) /\
    avt (rest ++ [mkb v Prd t]) (idn v) = Ok tmpv /\
    acs types next (rest ++ [mkb v Prd t]) lc1 = Ok (c3, lc') /\
    code = c1 ++ a_load_immediate tmpv (jump_length k) ++ c3.
Proof.
  intros H. cbn [code_statement] in H.
  destruct (lookup_type types t) as [d|] eqn:LT; cbn [rbind] in H; [|discriminate].
  destruct (xtor_position (txtors d) tag 0) as [k|] eqn:XP; cbn [rbind] in H; [|discriminate].
  destruct (Backend.split_last (List.length args) c) as [[rest arguments]|] eqn:SL; cbn [rbind] in H; [|discriminate].
  cbn [b_store a64_backend a64_backend_with] in H.
  destruct (a_store arguments rest lc) as [[c1 lc1]|] eqn:ST; cbn [rbind] in H; [|discriminate].
  destruct (avt (rest ++ [mkb v Prd t]) (idn v)) as [tmpv|] eqn:TV; cbn [rbind] in H; [|discriminate].
  destruct (acs types next (rest ++ [mkb v Prd t]) lc1) as [[c3 lc3]|] eqn:NX; cbn [rbind] in H; [|discriminate].
  cbn [b_mark b_load_immediate b_jump_length a64_backend a64_backend_with app fst snd] in H. inversion H; subst.
  exists d, k, rest, arguments, c1, lc1, tmpv, c3. repeat split; auto.
Qed.

Definition switch_head (cls : list clause) (fresh : string) (tmpv : atemp) : list acode :=
  if Nat.leb (List.length cls) 1 then []
  else a_load_label (AR TEMP) fresh ++ a_arith Sum (AR TEMP) (AR TEMP) tmpv ++ a_jump (AR TEMP).

Lemma cs_switch types v t cls c lc code lc' :
  acs types (Switch v t cls) c lc = Ok (code, lc') ->
  exists c1 c3,
    (if Nat.leb (List.length cls) 1 then c1 = []
     else exists tmpv, avt c (idn v) = Ok tmpv /\ c1 = switch_head cls (type_label t (lc + 1)%N) tmpv) /\
    gclauses types (fun cx lc0 => a_load cx (removelast c) lc0) (fun cx => removelast c ++ cx)
             (type_label t (lc + 1)%N) cls (lc + 1)%N = Ok (c3, lc') /\
    code = c1 ++ ([LAB (type_label t (lc + 1)%N)] ++ table_or_nil cls (type_label t (lc + 1)%N)) ++ c3.
Proof.
  intros H. cbn [code_statement] in H. set (fresh := type_label t (lc + 1)%N) in *.
  (* the clause loop inside `code_statement` is `gclauses` *)
  match type of H with context [rbind (?f cls (lc + 1)%N) _] =>
    change (f cls (lc + 1)%N) with (gclauses types (fun cx lc1 => a_load cx (removelast c) lc1) (fun cx => removelast c ++ cx) fresh cls (lc + 1)%N) in H
  end.
  destruct (Nat.leb (List.length cls) 1) eqn:LE.
  - cbn [rbind] in H.
    destruct (gclauses types _ _ fresh cls (lc + 1)%N) as [[c3 lc3]|] eqn:CC; cbn [rbind] in H; [|discriminate].
    cbn [b_mark b_label a64_backend a64_backend_with app fst snd] in H.
    assert (E : code = LAB fresh :: c3 /\ lc3 = lc') by (split; congruence). destruct E as [-> ->].
    exists [], c3. split; [reflexivity|]. split; [reflexivity|]. unfold table_or_nil. unfold clause in *. rewrite LE. reflexivity.
  - destruct (avt c (idn v)) as [tmpv|] eqn:TV; cbn [rbind] in H; [|discriminate].
    destruct (gclauses types _ _ fresh cls (lc + 1)%N) as [[c3 lc3]|] eqn:CC; cbn [rbind] in H; [|discriminate].
    cbn [b_mark b_load_label b_arith b_jump b_temp b_label a64_backend a64_backend_with fst snd] in H.
    cbn [app] in H. inversion H; subst.
    exists (switch_head cls fresh tmpv), c3. unfold switch_head, table_or_nil. unfold clause in *. rewrite LE.
    split; [exists tmpv; auto|]. split; [reflexivity|]. rewrite <- !app_assoc. reflexivity.
Qed.

Lemma clauses_code_gclauses types cenv fresh : forall cls lc,
  clauses_code types cenv fresh cls lc = gclauses types (fun cx lc0 => a_load cenv cx lc0) (fun cx => cx ++ cenv) fresh cls lc.
Proof.
  reflexivity.
Qed.

(* every clause list of the statement is non-empty *)
Fixpoint stmt_ne (s : stmt) : bool :=
  let go := fix go (cls : list (ident * ctx * stmt)) : bool :=
    match cls with
    | [] => true
    | (_, _, b) :: r => stmt_ne b && go r
    end in
  match s with
  | Substitute _ next | Let _ _ _ _ next | Literal _ _ next | Op _ _ _ _ next | PrintI64 _ _ next => stmt_ne next
  | Call _ _ | Exit _ | Invoke _ _ _ _ => true
  | IfC _ _ _ t e => stmt_ne t && stmt_ne e
  | Switch _ _ cls => negb (is_nil cls) && go cls
  | Create _ _ _ cls next => negb (is_nil cls) && go cls && stmt_ne next
  end.
Definition clauses_ne (cls : list clause) : bool := forallb (fun c => stmt_ne (cl_body c)) cls.
Lemma stmt_ne_go cls :
  (fix go (cls : list (ident * ctx * stmt)) : bool :=
     match cls with [] => true | (_, _, b) :: r => stmt_ne b && go r end) cls = clauses_ne cls.
Proof. induction cls as [|[[x cx] b] r IH]; [reflexivity|]. cbn [clauses_ne forallb cl_body snd]. now rewrite IH. Qed.
Lemma stmt_ne_switch v t cls : stmt_ne (Switch v t cls) = true -> cls <> [] /\ clauses_ne cls = true.
Proof.
  cbn [stmt_ne]. rewrite stmt_ne_go. intros H. apply andb_true_iff in H as [E G].
  split; [destruct cls; [discriminate|congruence]|exact G].
Qed.
Lemma stmt_ne_create v t env cls next :
  stmt_ne (Create v t env cls next) = true -> cls <> [] /\ clauses_ne cls = true /\ stmt_ne next = true.
Proof.
  cbn [stmt_ne]. rewrite stmt_ne_go. intros H. apply andb_true_iff in H as [H N]. apply andb_true_iff in H as [E G].
  split; [destruct cls; [discriminate|congruence]|auto].
Qed.
Lemma stmt_cf_ne : forall s, stmt_cf s = true -> stmt_ne s = true.
Proof.
  intros s. induction s as [re next IH|l args|v t tag args next IH|v t cls IH|v t env cls next IHc IH|v tag t args
                            |n v next IH|a o b v next IH|nl v next IH|so a b th el IH1 IH2|v] using stmt_ind2;
    intros CF; cbn [stmt_cf] in CF; try discriminate; cbn [stmt_ne]; auto.
  - apply andb_true_iff in CF as [_ CF]. auto.
  - destruct (stmt_cf_create v t env cls next CF) as (_ & NE & CFc & CFn). rewrite stmt_ne_go.
    rewrite (IH CFn), andb_true_r. apply andb_true_iff. split; [destruct cls; [exfalso; apply NE; reflexivity|reflexivity]|].
    unfold clauses_ne, clauses_cf in *. rewrite forallb_forall in *. rewrite Forall_forall in IHc.
    intros c Hc. apply IHc; [exact Hc|]. specialize (CFc c Hc). apply andb_true_iff in CFc as [_ X]. exact X.
  - apply andb_true_iff in CF as [C1 C2]. rewrite IH1, IH2; auto.
Qed.

Lemma gclauses_ends_nz_ne types ld bc fresh cls lc c5 lc' :
  Forall (fun c => forall ct lc code lc', stmt_ne (cl_body c) = true -> acs types (cl_body c) ct lc = Ok (code, lc') -> ends_nz code) cls ->
  cls <> [] -> clauses_ne cls = true -> gclauses types ld bc fresh cls lc = Ok (c5, lc') -> ends_nz c5.
Proof.
  intros FA NE NB GC. eapply gclauses_ends_nz; [|exact NE|exact GC].
  unfold clauses_ne in NB. rewrite forallb_forall in NB. rewrite Forall_forall in *.
  intros cl Hcl ct lc0 code0 lc0' CS0. exact (FA cl Hcl ct lc0 code0 lc0' (NB cl Hcl) CS0).
Qed.

Lemma acs_ends_nz types : forall s c lc code lc',
  stmt_ne s = true -> acs types s c lc = Ok (code, lc') -> ends_nz code.
Proof.
  intros s. induction s as [re next IH|l args|v t tag args next IH|v t cls IH|v t env cls next IHc IH|v tag t args
                            |n v next IH|a o b v next IH|nl v next IH|so a b th el IH1 IH2|v] using stmt_ind2;
    intros c lc code lc' NE CS.
  - cbn [stmt_ne] in NE.
    destruct (cs_substitute _ _ _ _ _ _ _ CS) as (c1 & lc1 & c2 & c3 & _ & _ & NX & ->). apply ends_nz_app, ends_nz_app. eauto.
  - destruct (cs_call _ _ _ _ _ _ _ CS) as (-> & _). apply (ends_nz_last []). cbn; lia.
  - cbn [stmt_ne] in NE.
    destruct (cs_let _ _ _ _ _ _ _ _ _ _ CS) as (d & k & rest & ar & c1 & lc1 & tmpv & c3 & _ & _ & _ & _ & _ & NX & ->).
    apply ends_nz_app, ends_nz_app. eauto.
  - destruct (stmt_ne_switch v t cls NE) as (NEc & NEb).
    destruct (cs_switch _ _ _ _ _ _ _ _ CS) as (c1 & c3 & _ & GC & ->). apply ends_nz_app, ends_nz_app.
    exact (gclauses_ends_nz_ne types _ _ _ _ _ _ _ IH NEc NEb GC).
  - destruct (stmt_ne_create v t env cls next NE) as (NEc & NEb & NEn).
    destruct env as [env|]; [|cbn [code_statement rbind] in CS; discriminate].
    destruct (cs_create _ _ _ _ _ _ _ _ _ _ CS) as (rest & cenv & c1 & lc1 & tmpv & c3 & lc3 & c5 & _ & _ & _ & _ & CC & ->).
    apply ends_nz_app, ends_nz_app, ends_nz_app, ends_nz_app. rewrite clauses_code_gclauses in CC.
    exact (gclauses_ends_nz_ne types _ _ _ _ _ _ _ IHc NEc NEb CC).
  - destruct (cs_invoke _ _ _ _ _ _ _ _ _ CS) as (tmpv & d & _ & _ & _ & CD).
    destruct (Nat.leb (List.length (txtors d)) 1).
    + subst code. destruct tmpv; cbn [a_jump]; [apply (ends_nz_last [])|apply (ends_nz_last [_])]; cbn; lia.
    + destruct CD as (k & _ & ->). destruct tmpv; cbn [a_add_and_jump]; [apply ends_nz_last|apply ends_nz_app, ends_nz_last]; cbn; lia.
  - cbn [stmt_ne] in NE. destruct (cs_literal _ _ _ _ _ _ _ _ CS) as (tv & c2 & _ & NX & ->). apply ends_nz_app. eauto.
  - cbn [stmt_ne] in NE. destruct (cs_op _ _ _ _ _ _ _ _ _ _ CS) as (tv & ta & tb & c2 & _ & _ & _ & NX & ->). apply ends_nz_app. eauto.
  - cbn [stmt_ne] in NE. destruct (cs_print _ _ _ _ _ _ _ _ CS) as (tv & c2 & _ & NX & ->). apply ends_nz_app. eauto.
  - cbn [stmt_ne] in NE. apply andb_true_iff in NE as [N1 N2].
    destruct (cs_ifc _ _ _ _ _ _ _ _ _ _ CS) as (ta & c1 & c2 & lc2 & c3 & _ & _ & _ & TH & ->).
    apply ends_nz_app, ends_nz_app, ends_nz_app. eauto.
  - destruct (cs_exit _ _ _ _ _ _ CS) as (tv & _ & -> & _). apply ends_nz_last. cbn; lia.
Qed.

Lemma gclauses_ne_ends_nz types ld bc fresh cls lc c5 lc' :
  cls <> [] -> clauses_ne cls = true -> gclauses types ld bc fresh cls lc = Ok (c5, lc') -> ends_nz c5.
Proof.
  intros NE NB GC. apply (gclauses_ends_nz_ne types ld bc fresh cls lc c5 lc'); try assumption.
  apply Forall_forall. intros cl _ ct lc0 code0 lc0' N CS0. exact (acs_ends_nz types _ _ _ _ _ N CS0).
Qed.

Section Layout.
Variable im : image.
Hypothesis IMG : img_ok im.

(* table entry k >= 1 (entry 0 shares the address of the label in front of the table) *)
Lemma table_entry_k pcl fresh cls R a :
  code_at im pcl ([LAB fresh] ++ code_table a64_backend cls fresh ++ R) ->
  PM.find pcl (addr_of im) = Some a ->
  forall k, (S k < List.length cls)%nat ->
    PM.find (key (a + 4 * Z.of_nat (S k))) (index_at im) = Some (padd pcl (1 + S k)) /\
    PM.find (padd pcl (1 + S k)) (addr_of im) = Some (a + 4 * Z.of_nat (S k)).
Proof.
  intros CA A k Hk. destruct (table_entry im IMG pcl fresh cls R a CA A (S k) Hk) as [AD IX]. auto.
Qed.

(* the label, the table and the clauses: where clause k is, and how control reaches it *)
Lemma dispatch_layout_exec types ld bc pcl fresh cls c5 lc3 lc5 a :
  code_at im pcl (([LAB fresh] ++ table_or_nil cls fresh) ++ c5) ->
  labels_at_nh im pcl (([LAB fresh] ++ table_or_nil cls fresh) ++ c5) ->
  hash_name fresh = false ->
  gclauses types ld bc fresh cls lc3 = Ok (c5, lc5) ->
  PM.find pcl (addr_of im) = Some a ->
  forall k c, nth_error cls k = Some c ->
    exists pcc lcl cl lcb cb lcb',
      ld (cl_ctx c) lcl = Ok (cl, lcb) /\ acs types (cl_body c) (bc (cl_ctx c)) lcb = Ok (cb, lcb') /\
      code_at im pcc (cl ++ cb) /\ labels_at_nh im pcc (cl ++ cb) /\
      (* at most one clause: falling through the two labels; an indirect branch to `a` lands in or after the clause code *)
      (Nat.leb (List.length cls) 1 = true ->
         (forall s, exec_to im pcl s pcc s) /\
         (ends_nz c5 -> exists i, PM.find (key a) (index_at im) = Some i /\ forall s o, finishes im pcc s o -> finishes im i s o)) /\
      (* the jump table: a + 4k is the address of entry k, which branches to the clause label *)
      (Nat.leb (List.length cls) 1 = false ->
         exists i, PM.find (key (a + jump_length (N.of_nat k))) (index_at im) = Some i /\
                   PM.find i (addr_of im) = Some (a + jump_length (N.of_nat k)) /\
                   forall s, exec_to im i s pcc s).
Proof.
  intros CA LA NH CC AL k c Hk.
  rewrite <- !app_assoc in CA, LA.
  destruct c as [[x cx] body].
  destruct (gclauses_nth types ld bc fresh _ _ _ _ k x cx body CC Hk) as (pre5 & lc0 & cl & lc1 & cb & lc2 & post5 & E5 & LD & BD & PRE0).
  cbn [cl_ctx cl_body fst snd] in *.
  assert (Lk : (k < List.length cls)%nat) by (apply nth_error_Some; congruence).
  set (tb := table_or_nil cls fresh) in *.
  set (lx := fresh +++ "_" +++ show_ident x) in *.
  assert (CODE : code_at im pcl ([LAB fresh] ++ tb ++ pre5 ++ [LAB lx] ++ (cl ++ cb) ++ post5)).
  { rewrite E5 in CA. repeat rewrite <- app_assoc in CA. repeat rewrite <- app_assoc. cbn [app] in *. exact CA. }
  assert (LABS : labels_at_nh im pcl ([LAB fresh] ++ tb ++ pre5 ++ [LAB lx] ++ (cl ++ cb) ++ post5)).
  { rewrite E5 in LA. repeat rewrite <- app_assoc in LA. repeat rewrite <- app_assoc. cbn [app] in *. exact LA. }
  set (jl := (1 + List.length tb + List.length pre5)%nat).
  assert (NL : nth_error ([LAB fresh] ++ tb ++ pre5 ++ [LAB lx] ++ (cl ++ cb) ++ post5) jl = Some (LAB lx)).
  { unfold jl. cbn [app Nat.add nth_error]. rewrite nth_error_app2 by lia. rewrite nth_error_app2 by lia.
    replace (_ - _ - _)%nat with O by lia. reflexivity. }
  pose proof (code_at_nth im pcl _ jl _ CODE NL) as CLx.
  pose proof (LABS jl _ NL (hash_name_sub fresh (show_ident x) NH)) as FLx.
  assert (CB : code_at im (padd pcl (S jl)) ((cl ++ cb) ++ post5) /\ labels_at_nh im (padd pcl (S jl)) (cl ++ cb)).
  { pose proof CODE as CODE'. pose proof LABS as LABS'.
    replace ([LAB fresh] ++ tb ++ pre5 ++ [LAB lx] ++ (cl ++ cb) ++ post5)
      with (([LAB fresh] ++ tb ++ pre5 ++ [LAB lx]) ++ (cl ++ cb) ++ post5) in CODE', LABS'
      by (rewrite <- !app_assoc; reflexivity).
    apply code_at_app in CODE' as [_ CODE'].
    apply labels_at_nh_app in LABS' as [_ LABS']. apply labels_at_nh_app in LABS' as [LABS' _].
    replace (List.length ([LAB fresh] ++ tb ++ pre5 ++ [LAB lx])) with (S jl) in CODE', LABS'
      by (unfold jl; rewrite !app_length; cbn [List.length]; lia).
    auto. }
  destruct CB as [CBP LB]. pose proof CBP as CB. apply code_at_app in CB as [CB _].
  assert (INTO : forall s, exec_to im (padd pcl jl) s (padd pcl (S jl)) s).
  { intros s. eapply exec_next; [exact CLx|reflexivity|]. rewrite <- padd_succ. apply exec_refl. }
  pose proof CODE as CODE0. apply code_at_cons in CODE0 as [C0 _].
  exists (padd pcl (S jl)), lc0, cl, lc1, cb, lc2.
  split; [exact LD|]. split; [exact BD|]. split; [exact CB|]. split; [exact LB|].
  destruct (Nat.leb (List.length cls) 1) eqn:LE.
  - (* at most one clause: the label of the dispatch is followed by the label of the clause *)
    split; [intros _|discriminate].
    assert (TB : tb = []) by (unfold tb, table_or_nil; now rewrite LE).
    assert (K0 : k = O) by (apply Nat.leb_le in LE; lia). subst k.
    assert (P5 : pre5 = []) by (apply PRE0; reflexivity).
    assert (J1 : jl = 1%nat) by (unfold jl; rewrite TB, P5; reflexivity).
    split.
    + intros s. eapply exec_next; [exact C0|reflexivity|].
      specialize (INTO s). rewrite J1 in INTO. cbn [padd] in INTO. rewrite J1. cbn [padd]. exact INTO.
    + intros NZ. set (rest := (cl ++ cb) ++ post5) in *.
      assert (ER : ends_nz rest).
      { rewrite E5, P5 in NZ. cbn [app] in NZ. destruct NZ as (pre & c1 & E & SZ).
        destruct pre as [|p0 pre]; cbn [app] in E; inversion E; subst; [cbn in SZ; lia|].
        exists pre, c1. split; [|exact SZ]. unfold rest. rewrite <- app_assoc. assumption. }
      destruct (lead_spec rest ER) as (c1 & N1 & SZ1 & F1).
      assert (L1 : (lead rest < List.length rest)%nat) by (apply nth_error_Some; congruence).
      rewrite TB, P5 in CODE. cbn [app] in CODE. fold rest in CODE.
      exists (padd pcl (2 + lead rest)). split.
      * apply (land im IMG _ pcl a (2 + lead rest) c1 CODE AL).
        -- cbn [Nat.add firstn size_of isize]. rewrite F1. lia.
        -- cbn [Nat.add nth_error]. exact N1.
        -- exact SZ1.
      * intros s o FIN. rewrite J1 in CBP, FIN. cbn [padd] in CBP, FIN.
        assert (CBp : code_at im (Pos.succ (Pos.succ pcl)) (firstn (lead rest) rest)).
        { rewrite <- (firstn_skipn (lead rest) rest) in CBP. apply code_at_app in CBP as [CB1 _]. exact CB1. }
        pose proof (finishes_skip im _ _ s o CBp F1 FIN) as FS.
        rewrite firstn_length_le in FS by lia. cbn [Nat.add padd]. exact FS.
  - (* the jump table *)
    split; [discriminate|intros _].
    assert (TB : tb = code_table a64_backend cls fresh) by (unfold tb, table_or_nil; now rewrite LE).
    rewrite TB in CODE.
    destruct (table_entry im IMG pcl fresh cls _ a CODE AL k Lk) as (ADk & IXk).
    exists (padd pcl (1 + k)). unfold jump_length. rewrite nat_N_Z.
    split; [exact IXk|]. split; [exact ADk|].
    assert (CJ : PM.find (padd pcl (1 + k)) (code im) = Some (B lx)).
    { apply CODE. cbn [app Nat.add nth_error]. rewrite nth_error_app1 by (rewrite code_table_length; lia).
      apply (code_table_nth cls fresh k (x, cx, body) Hk). }
    intros s. eapply exec_jump; [exact CJ|cbn [step]; unfold goto_label; rewrite FLx; reflexivity|]. apply INTO.
Qed.

(* a run that reaches pc' on the way (deterministically) finishes from there as well *)
Lemma finishes_exec_to pc s pc' s' o : exec_to im pc s pc' s' -> finishes im pc s o -> finishes im pc' s' o.
Proof.
  induction 1 as [pc s|pc c s s1 pc' s' Hc Hs _ IH|pc c s s1 i pc' s' Hc Hs _ IH]; intros (n & sf & Hn); [exists n, sf; exact Hn| |].
  all: destruct n as [|n]; [discriminate|]; cbn [run_chunk] in Hn; rewrite Hc, Hs in Hn; apply IH; exists n, sf; exact Hn.
Qed.

(* the same in the form the closure invariant uses: the landing index of the address and "every run from the start
   of the clause code continues from the landing index".  With at most one clause the address is that of the label in
   front of the clauses, and its landing index is a hypothesis (LND). *)
Lemma dispatch_layout_land types ld bc pcl fresh cls c5 lc3 lc5 a :
  code_at im pcl (([LAB fresh] ++ table_or_nil cls fresh) ++ c5) ->
  labels_at_nh im pcl (([LAB fresh] ++ table_or_nil cls fresh) ++ c5) ->
  hash_name fresh = false ->
  gclauses types ld bc fresh cls lc3 = Ok (c5, lc5) ->
  PM.find pcl (addr_of im) = Some a ->
  forall k c, nth_error cls k = Some c ->
  (Nat.leb (List.length cls) 1 = true ->
     exists i, PM.find (key a) (index_at im) = Some i /\ forall s o, finishes im pcl s o -> finishes im i s o) ->
    exists i pcc lcl cl lcb cb lcb',
      PM.find (key (a + (if Nat.leb (List.length cls) 1 then 0 else jump_length (N.of_nat k)))) (index_at im) = Some i /\
      (exists pca, PM.find pca (addr_of im) = Some (a + (if Nat.leb (List.length cls) 1 then 0 else jump_length (N.of_nat k)))) /\
      (forall s o, finishes im pcc s o -> finishes im i s o) /\
      (Nat.leb (List.length cls) 1 = true -> forall s o, finishes im pcc s o -> finishes im pcl s o) /\
      ld (cl_ctx c) lcl = Ok (cl, lcb) /\ acs types (cl_body c) (bc (cl_ctx c)) lcb = Ok (cb, lcb') /\
      code_at im pcc (cl ++ cb) /\ labels_at_nh im pcc (cl ++ cb).
Proof.
  intros CA LA NH CC AL k c Hk LND.
  destruct (dispatch_layout_exec types ld bc pcl fresh cls c5 lc3 lc5 a CA LA NH CC AL k c Hk)
    as (pcc & lcl & cl & lcb & cb & lcb' & LD & BD & CB & LB & ONE & TAB).
  destruct (Nat.leb (List.length cls) 1) eqn:LE.
  - destruct (ONE eq_refl) as (DOWN & _). destruct (LND eq_refl) as (i & IX & ARR).
    exists i, pcc, lcl, cl, lcb, cb, lcb'. rewrite Z.add_0_r.
    split; [exact IX|]. split; [exists pcl; exact AL|].
    split; [intros s o FIN; apply ARR; exact (exec_to_finishes im _ _ _ _ o (DOWN s) FIN)|].
    split; [intros _ s o FIN; exact (exec_to_finishes im _ _ _ _ o (DOWN s) FIN)|]. auto.
  - destruct (TAB eq_refl) as (i & IX & AD & ARR).
    exists i, pcc, lcl, cl, lcb, cb, lcb'.
    split; [exact IX|]. split; [exists i; exact AD|].
    split; [intros s o FIN; exact (exec_to_finishes im _ _ _ _ o (ARR s) FIN)|].
    split; [discriminate|]. auto.
Qed.

(* from the hypothesis that the clause code ends with a real instruction *)
Lemma dispatch_layout types ld bc pcl fresh cls c5 lc3 lc5 a :
  code_at im pcl (([LAB fresh] ++ table_or_nil cls fresh) ++ c5) ->
  labels_at_nh im pcl (([LAB fresh] ++ table_or_nil cls fresh) ++ c5) ->
  hash_name fresh = false ->
  gclauses types ld bc fresh cls lc3 = Ok (c5, lc5) ->
  PM.find pcl (addr_of im) = Some a ->
  (Nat.leb (List.length cls) 1 = true -> ends_nz c5) ->
  forall k c, nth_error cls k = Some c ->
    exists i pcc lcl cl lcb cb lcb',
      PM.find (key (a + (if Nat.leb (List.length cls) 1 then 0 else jump_length (N.of_nat k)))) (index_at im) = Some i /\
      (exists pca, PM.find pca (addr_of im) = Some (a + (if Nat.leb (List.length cls) 1 then 0 else jump_length (N.of_nat k)))) /\
      (forall s o, finishes im pcc s o -> finishes im i s o) /\
      (Nat.leb (List.length cls) 1 = true -> forall s o, finishes im pcc s o -> finishes im pcl s o) /\
      ld (cl_ctx c) lcl = Ok (cl, lcb) /\ acs types (cl_body c) (bc (cl_ctx c)) lcb = Ok (cb, lcb') /\
      code_at im pcc (cl ++ cb) /\ labels_at_nh im pcc (cl ++ cb).
Proof.
  intros CA LA NH CC AL NZ k c Hk. apply (dispatch_layout_land types ld bc pcl fresh cls c5 lc3 lc5 a CA LA NH CC AL k c Hk). intros LE.
  destruct (dispatch_layout_exec types ld bc pcl fresh cls c5 lc3 lc5 a CA LA NH CC AL k c Hk)
    as (pcc & _ & _ & _ & _ & _ & _ & _ & _ & _ & ONE & _).
  destruct (ONE LE) as (DOWN & LAND). destruct (LAND (NZ LE)) as (i & IX & ARR).
  exists i. split; [exact IX|]. intros s o FIN. exact (ARR s o (finishes_exec_to _ _ _ _ o (DOWN s) FIN)).
Qed.
End Layout.

(* the forward property of the image: the AArch64 counterpart of x86-64's `back_ok` *)
(* every placed instruction is followed, after zero-size pseudo-instructions only (labels, directives; all of them
   placed), by an instruction of non-zero size.  With it an indirect branch to the address of ANY placed index has
   a landing index (`fwd_land`), and `dispatch_layout_fwd` needs no hypothesis on the clause code. *)
Definition fwd_ok (im : image) : Prop :=
  forall pc c, PM.find pc (code im) = Some c ->
    exists zs c', code_at im pc (zs ++ [c']) /\ size_of zs = 0 /\ 0 < isize c'.

(* the same read index-wise (the formulation without lists) *)
Lemma fwd_ok_index im : fwd_ok im ->
  forall pc c, PM.find pc (code im) = Some c ->
    exists j c', PM.find (padd pc j) (code im) = Some c' /\ 0 < isize c' /\
                 (forall i ci, (i < j)%nat -> PM.find (padd pc i) (code im) = Some ci -> isize ci = 0).
Proof.
  intros FWD pc c Hc. destruct (FWD pc c Hc) as (zs & c' & CA & Z0 & SZ).
  exists (List.length zs), c'. split; [apply CA; apply nth_error_mid|]. split; [exact SZ|].
  intros i ci Hi Hci. destruct (nth_error zs i) as [z|] eqn:Ez; [|apply nth_error_None in Ez; lia].
  assert (E : PM.find (padd pc i) (code im) = Some z) by (apply CA; rewrite nth_error_app1 by lia; exact Ez).
  assert (ci = z) by congruence. subst ci.
  clear - Ez Z0. revert i Ez. induction zs as [|z0 r IH]; intros i Ez; [destruct i; discriminate|].
  cbn [size_of] in Z0. pose proof (isize_nonneg z0). pose proof (size_of_nonneg r).
  destruct i as [|i]; cbn [nth_error] in Ez; [inversion Ez; subst; lia|]. apply (IH ltac:(lia) i Ez).
Qed.

(* in a list with a real instruction at or after position n: the zero-size run from n and the real instruction after it *)
Lemma next_nz (cs : list acode) : forall d n c,
  nth_error cs (n + d) = Some c -> 0 < isize c ->
  exists zs c', size_of zs = 0 /\ 0 < isize c' /\
    forall i ci, nth_error (zs ++ [c']) i = Some ci -> nth_error cs (n + i) = Some ci.
Proof.
  induction d as [|d IH]; intros n c Hn SZ.
  - exists [], c. split; [reflexivity|]. split; [exact SZ|]. intros i ci Hi. cbn [app] in Hi.
    destruct i as [|i]; cbn [nth_error] in Hi; [|destruct i; discriminate]. inversion Hi; subst. exact Hn.
  - destruct (nth_error cs n) as [c0|] eqn:E0.
    2:{ apply nth_error_None in E0. assert (L : (n + S d < List.length cs)%nat) by (apply nth_error_Some; congruence). lia. }
    destruct (Z_lt_le_dec 0 (isize c0)) as [P|NP].
    + exists [], c0. split; [reflexivity|]. split; [exact P|]. intros i ci Hi. cbn [app] in Hi.
      destruct i as [|i]; cbn [nth_error] in Hi; [|destruct i; discriminate]. inversion Hi; subst. rewrite Nat.add_0_r. exact E0.
    + replace (n + S d)%nat with (S n + d)%nat in Hn by lia.
      destruct (IH (S n) c Hn SZ) as (zs & c' & Z0 & SZ' & NTH).
      exists (c0 :: zs), c'. pose proof (isize_nonneg c0). split; [cbn [size_of]; lia|]. split; [exact SZ'|].
      intros i ci Hi. destruct i as [|i]; cbn [app nth_error] in Hi.
      * inversion Hi; subst. rewrite Nat.add_0_r. exact E0.
      * replace (n + S i)%nat with (S n + i)%nat by lia. apply NTH. exact Hi.
Qed.

Theorem mk_image_fwd cs : ends_nz cs -> fwd_ok (mk_image cs).
Proof.
  intros (pre & cl & E & SZ) pc c Hc.
  apply build_code_inv in Hc as [Hc|(n & -> & Hn)]; [cbn in Hc; rewrite PM.gempty in Hc; discriminate|].
  assert (Ln : (n < List.length cs)%nat) by (apply nth_error_Some; congruence).
  assert (LL : List.length cs = S (List.length pre)) by (rewrite E, app_length; cbn [List.length]; lia).
  assert (LAST : nth_error cs (n + (List.length pre - n)) = Some cl).
  { replace (n + (List.length pre - n))%nat with (List.length pre) by lia. rewrite E. apply nth_error_mid. }
  destruct (next_nz cs _ n cl LAST SZ) as (zs & c' & Z0 & SZ' & NTH).
  exists zs, c'. split; [|auto]. intros i ci Hi. rewrite <- padd_add.
  apply (build_code_nth cs 1%positive CODE_BASE _ (n + i) ci). apply NTH. exact Hi.
Qed.

(* the compiled routine ends with the RET of `cleanup` *)
Lemma routine_ends_nz is n cs : into_aarch64_routine is n = Ok cs -> ends_nz cs.
Proof.
  unfold into_aarch64_routine. destruct (setup n) as [su|]; cbn [rbind]; [|discriminate]. intros H. inversion H; subst cs.
  exists (preamble ++ su ++ is ++ firstn 8 cleanup), RET. split; [|cbn; lia].
  rewrite <- !app_assoc. reflexivity.
Qed.
Corollary routine_image_fwd is n cs : into_aarch64_routine is n = Ok cs -> fwd_ok (mk_image cs).
Proof. intros H. apply mk_image_fwd. exact (routine_ends_nz is n cs H). Qed.

Section LayoutFwd.
Variable im : image.
Hypothesis IMG : img_ok im.
Hypothesis FWD : fwd_ok im.

(* an indirect branch to the address of a placed index lands on the next real instruction, and every run from the
   index continues from the landing index *)
Lemma fwd_land pc c a :
  PM.find pc (code im) = Some c -> PM.find pc (addr_of im) = Some a ->
  exists i, PM.find (key a) (index_at im) = Some i /\ forall s o, finishes im pc s o -> finishes im i s o.
Proof.
  intros Hc Ha. destruct (FWD pc c Hc) as (zs & c' & CA & Z0 & SZ).
  exists (padd pc (List.length zs)). split.
  - apply (land im IMG (zs ++ [c']) pc a (List.length zs) c' CA Ha); [|apply nth_error_mid|exact SZ].
    rewrite firstn_app, firstn_all, Nat.sub_diag. cbn [firstn]. rewrite app_nil_r. exact Z0.
  - intros s o FIN. apply code_at_app in CA as [CZ _]. exact (finishes_skip im zs pc s o CZ Z0 FIN).
Qed.
End LayoutFwd.
