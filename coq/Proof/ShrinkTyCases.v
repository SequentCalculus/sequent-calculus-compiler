(* Proof/ShrinkTyCases.v (C12, fragment 2) - the cases of the typing lemma that need no eta expansion:
   exit, print, ifc, call, literal and operation (against mu~ and against a covariable), renaming cuts,
   the critical pair at i64; the clauses produced by shrink_clauses, switch and create; let, invoke and
   known cuts. *)
From Coq Require Import List ZArith NArith String Bool Lia.
From SCC Require Import Proof.CoreInd.
From SCC Require Import Base.Sexp Lang.SynUtil Lang.CoreSyn Lang.AxSyn Sem.FsCheck Model.Shrink Model.LinCheck
     Model.WtDefs Proof.ShrinkProof Proof.ShrinkRn Proof.ShrinkSimBase Proof.ShrinkSimEta Proof.ShrinkTfv
     Proof.ShrinkTyC Proof.ShrinkSimCases.
From SCC Require Sem.AxCheck.
Import ListNotations.
Open Scope list_scope.

Ltac tstart :=
  unfold TLs; intros lbl G rho th st t st' Ga Hinv Hck Hub Hib Hnc Hdecl Hsh Hg Hgi Hlin Hlw; rewrite shrink_stmt_S in Hsh.
  
Section TyCases.
Variable p : fsprog.
Variable ds' : list def.
Notation data := (fspdata p).
Notation codata := (fspcodata p).
Notation defs := (fspdefs p).
Notation m0 := (fspmax p).
Notation D := (data ++ [cont_int]).
Notation ts := (ts_of p).
Notation TLs := (TLs p ds').
Notation TLn := (TLn p ds').
Hypothesis Hdisj : forall n, find_decl data n <> None -> find_decl codata n = None.
Hypothesis Hcont : find_decl data cont_name = None /\ find_decl codata cont_name = None.
Hypothesis Hds_find : forall d, In d ds' -> find (fun d' => ident_eqb (dname d') (dname d)) ds' = Some d.
Hypothesis Hds_defs : forall d, In d defs -> exists t, In (mkd (fsdname d) (shrink_context codata (fsdctx d)) t) ds'.
Hypothesis Hfields : forall d, In d (data ++ codata) -> forall sg, In sg (ctxtors d) -> forall b, In b (cxargs sg) -> ty_ok data codata (cbty b) = true.

Lemma bound_skip : forall Ga y c t v c' t', AxCheck.bound Ga y c t = None -> ~ In (idn v) (ids Ga) ->
  AxCheck.bound (mkb v c' t' :: Ga) y c t = None.
Proof.
  intros Ga y c t v c' t' H Hv. unfold AxCheck.bound in *. cbn [AxCheck.lookup_b bvar].
  destruct (AxCheck.lookup_b Ga (idn y)) as [b|] eqn:E; [|discriminate].
  destruct (N.eqb (idn v) (idn y)) eqn:Q; [|exact H]. apply N.eqb_eq in Q. exfalso. apply Hv. rewrite Q. eapply lookup_b_in; eauto.
Qed.
Lemma decl_push : forall G x c t, decl_ok p G -> ty_ok data codata t = true -> decl_ok p (mkcb x c t :: G).
Proof. intros G x c t H Ht b [<-|Hb]; [exact Ht | now apply H]. Qed.
Lemma lifted_in'_mono : forall st st' nd, lifted_in' ds' st' -> s_lifted st' = nd ++ s_lifted st -> lifted_in' ds' st.
Proof. intros st st' nd H E d Hd. apply H. rewrite E. apply in_or_app. now right. Qed.
Lemma ginv_app_G : forall Ga G ctx st st', ginv p Ga G st st' -> ginv p Ga (ctx ++ G) st st'.
Proof.
  intros Ga G ctx st st' H i Hi. destruct (H i Hi) as [[A|A] Bn]; (split; [|exact Bn]); [left; rewrite cids_app; apply in_or_app; now right | now right].
Qed.

Lemma tl_exit : forall k v, TLs (S k) (FsExit v).
Proof.
  intros k v. tstart. cbn [rn_stmt shrink_step] in Hsh. unfold shrink_identifier in Hsh. inv Hsh.
  cbn [check_stmt] in Hck. cbn [nc_stmt] in Hnc. split; [|split; [reflexivity | exact Hlw]].
  cbn [arn]. apply ck_exit. apply (occ_bound p _ _ _ _ v CPrd CI64 Hg Hck Hnc eq_refl).
Qed.

Lemma tl_print : forall k, TLn k -> forall nl a nx, TLs (S k) (FsPrint nl a nx).
Proof.
  intros k IH nl a nx. tstart. cbn [rn_stmt shrink_step] in Hsh. unfold shrink_identifier in Hsh.
  destruct (shrink_stmt k _ (rn_stmt rho nx) st) as [[t1 st1]|] eqn:E1; [|discriminate Hsh]. cbn [sbind] in Hsh. inv Hsh.
  rewrite check_stmt_print_eq in Hck. apply seq_none in Hck as [Hca Hck].
  rewrite ib_stmt_print in Hib. apply andb_prop in Hib as [_ Hib]. cbn [ub_stmt] in Hub.
  cbn [nc_stmt] in Hnc. apply andb_prop in Hnc as [Hna Hncn].
  destruct (IH nx lbl G rho th st t1 st' Ga Hinv Hck Hub Hib Hncn Hdecl E1) as (T1 & T2 & T3); auto.
  { eapply grel_weaken; [exact Hg | intros x Hx; occ]. }
  split; [|split; [exact T2 | exact T3]]. cbn [arn]. apply ck_print; [|exact T1].
  apply (occ_bound p _ _ _ _ a CPrd CI64 Hg Hca Hna (or_introl eq_refl)).
Qed.

Lemma tl_ifc : forall k, TLn k -> forall so a b s1 s2, TLs (S k) (FsIfC so a b s1 s2).
Proof.
  intros k IH so a b s1 s2. tstart. cbn [rn_stmt shrink_step] in Hsh. unfold shrink_identifier in Hsh.
  destruct (shrink_stmt k _ (rn_stmt rho s1) st) as [[u1 st1]|] eqn:E1; [|discriminate Hsh]. cbn [sbind] in Hsh.
  destruct (shrink_stmt k _ (rn_stmt rho s2) st1) as [[u2 st2]|] eqn:E2; [|discriminate Hsh]. cbn [sbind] in Hsh. inv Hsh.
  rewrite check_stmt_ifc_eq in Hck. apply seq_none in Hck as [Hca Hck]. apply seq_none in Hck as [Hcb Hck]. apply seq_none in Hck as [Hc1 Hc2].
  rewrite ib_stmt_ifc in Hib. apply andb_prop in Hib as [Hib Hib2]. apply andb_prop in Hib as [_ Hib1].
  cbn [ub_stmt] in Hub. apply andb_prop in Hub as [Hub1 Hub2].
  cbn [nc_stmt] in Hnc. apply andb_prop in Hnc as [Hnc Hnc2]. apply andb_prop in Hnc as [Hnc Hnc1]. apply andb_prop in Hnc as [Hna Hnb].
  destruct (shrink_stmt_mono _ _ _ _ _ _ E1) as [Hm1 (nd1 & Hl1)].
  assert (Hinv1 : inv p G rho th st1) by (eapply inv_st_mono; eauto).
  destruct (shrink_stmt_mono _ _ _ _ _ _ E2) as [Hm2 (nd2 & Hl2)].
  destruct (IH s1 lbl G rho th st u1 st1 Ga Hinv Hc1 Hub1 Hib1 Hnc1 Hdecl E1) as (T1 & T2 & T3); auto.
  { eapply grel_weaken; [exact Hg | intros x Hx; occ]. }
  { eapply ginv_sub; eauto; lia. }
  { eapply lifted_in'_mono; eauto. }
  destruct (IH s2 lbl G rho th st1 u2 st' Ga Hinv1 Hc2 Hub2 Hib2 Hnc2 Hdecl E2) as (U1 & U2 & U3); auto.
  { eapply grel_weaken; [exact Hg | intros x Hx; occ]. }
  { eapply ginv_sub; eauto; lia. }
  split; [|split; [cbn [pre_linear]; now rewrite T2, U2 | exact U3]].
  cbn [arn]. apply ck_ifc; auto.
  - apply (occ_bound p _ _ _ _ a CPrd CI64 Hg Hca Hna (or_introl eq_refl)).
  - destruct b as [b|]; [|reflexivity]. cbn [option_map]. apply (occ_bound p _ _ _ _ b CPrd CI64 Hg Hcb Hnb). cbn [occurs]. auto.
Qed.

Lemma tl_call : forall k f args, TLs (S k) (FsCall f args).
Proof.
  intros k f args. tstart. cbn [rn_stmt shrink_step] in Hsh. unfold shrink_identifier in Hsh. inv Hsh.
  cbn [check_stmt] in Hck. destruct (find (fun d => cident_eqb (fsdname d) f) defs) as [d|] eqn:Hfd; [|discriminate Hck].
  pose proof (find_some _ _ Hfd) as [Hd Hname]. apply cident_eqb_eq in Hname. cbn [nc_stmt] in Hnc.
  split; [|split; [reflexivity | exact Hlw]]. cbn [arn].
  destruct (Hds_defs d Hd) as [td Htd]. pose proof (Hds_find _ Htd) as Hf. cbn [dname] in Hf. rewrite Hname in Hf.
  eapply ck_call; [exact Hf|]. cbn [dctx]. intros what.
  eapply args_ok_shrink; [exact Hg | | eapply fargs_sig; eauto].
  intros a Ha. split; [eapply args_in_G; eauto | cbn [occurs]; unfold occ_ctx, cvars; now apply in_map].
Qed.

(* pushing an old Core binder that keeps its name *)
Lemma push_old : forall (need need' : cident -> Prop) Ga G rho th st st' x c t,
  inv p G rho th st -> grel p need (fun y => th (rho y)) Ga G -> ginv p Ga G st st' ->
  ~ In (cid_id x) (cids G) -> (cid_id x <= m0)%N -> (forall y, need' y -> need y) ->
  AxCheck.fresh_for Ga x = None /\
  grel p need' (fun y => th (rho y)) (mkb x (bchi (shrink_binding codata (mkcb x c t))) (bty (shrink_binding codata (mkcb x c t))) :: Ga) (mkcb x c t :: G) /\
  ginv p (mkb x (bchi (shrink_binding codata (mkcb x c t))) (bty (shrink_binding codata (mkcb x c t))) :: Ga) (mkcb x c t :: G) st st'.
Proof.
  intros need need' Ga G rho th st st' x c t Hinv Hg Hgi Hx Hxm Hn.
  assert (Hni : ~ In (idn x) (ids Ga)) by (eapply ginv_old; eauto).
  split; [now apply fresh_for_intro|]. split.
  - eapply grel_push with (pi := fun y => th (rho y)) (need := need); [exact Hg | exact Hni | |].
    + intros b Hb Hb'. split; [now apply Hn | reflexivity].
    + now rewrite (inv_self p _ _ _ _ _ Hinv Hx Hxm).
  - apply ginv_push_old; auto. apply (inv_st _ _ _ _ _ Hinv).
Qed.

Lemma tl_lit_mu : forall k, TLn k -> forall z ty c x s' t', TLs (S k) (FsCut (FsLit z) ty (FsMu c x s' t')).
Proof.
  intros k IH z ty c x s' t'. tstart. cbn [rn_stmt rn_term shrink_step shrink_cut] in Hsh. unfold shrink_identifier in Hsh.
  destruct (shrink_stmt k _ (rn_stmt rho s') st) as [[t1 st1]|] eqn:E1; [|discriminate Hsh]. cbn [sbind] in Hsh. inv Hsh.
  apply cut_typing in Hck as (Hty & Hcp & Hck).
  apply lit_typing in Hcp as [_ ->].
  apply mu_typing in Hck as Hck. cbn [opp] in Hck.
  rewrite ib_stmt_cut, ib_term_mu in Hib. apply andb_prop in Hib as [_ Hib]. apply andb_prop in Hib as [Hix Hib]. apply id_le_le in Hix.
  cbn [ub_stmt ub_term andb] in Hub. apply andb_prop in Hub as [Hux Hub]. apply negb_mem_notin in Hux.
  pose proof (nc_cut_mu_r _ _ _ _ _ _ _ Hnc) as Hncs.
  destruct (push_old _ (fun y => occurs y s') _ _ _ _ _ _ x CPrd CI64 Hinv Hg Hgi Hux Hix ltac:(intros y Hy; occ)) as (Hf & Hg' & Hgi').
  destruct (IH s' lbl _ rho th st t1 st' _ (inv_push p _ _ _ _ x CPrd CI64 Hinv Hux Hix) Hck Hub Hib Hncs (decl_push _ x CPrd CI64 Hdecl eq_refl) E1 Hg' Hgi' Hlin Hlw) as (T1 & T2 & T3).
  split; [|split; [exact T2 | exact T3]]. cbn [arn]. apply ck_literal; [exact Hf | exact T1].
Qed.

Lemma tl_op_mu : forall k, TLn k -> forall a o b ty c x s' t', TLs (S k) (FsCut (FsOp a o b) ty (FsMu c x s' t')).
Proof.
  intros k IH a o b ty c x s' t'. tstart. cbn [rn_stmt rn_term shrink_step shrink_cut] in Hsh. unfold shrink_identifier in Hsh.
  destruct (shrink_stmt k _ (rn_stmt rho s') st) as [[t1 st1]|] eqn:E1; [|discriminate Hsh]. cbn [sbind] in Hsh. inv Hsh.
  apply cut_typing in Hck as (Hty & Hcp & Hck).
  apply op_typing in Hcp as (_ & -> & Hca & Hcb).
  apply mu_typing in Hck as Hck. cbn [opp] in Hck.
  rewrite ib_stmt_cut, ib_term_mu in Hib. apply andb_prop in Hib as [_ Hib]. apply andb_prop in Hib as [Hix Hib]. apply id_le_le in Hix.
  cbn [ub_stmt ub_term andb] in Hub. apply andb_prop in Hub as [Hux Hub]. apply negb_mem_notin in Hux.
  pose proof (nc_cut_mu_r _ _ _ _ _ _ _ Hnc) as Hncs. apply nc_cut in Hnc as [Hnco _]. cbn [nc_term] in Hnco. apply andb_prop in Hnco as [Hna Hnb].
  destruct (push_old _ (fun y => occurs y s') _ _ _ _ _ _ x CPrd CI64 Hinv Hg Hgi Hux Hix ltac:(intros y Hy; occ)) as (Hf & Hg' & Hgi').
  destruct (IH s' lbl _ rho th st t1 st' _ (inv_push p _ _ _ _ x CPrd CI64 Hinv Hux Hix) Hck Hub Hib Hncs (decl_push _ x CPrd CI64 Hdecl eq_refl) E1 Hg' Hgi' Hlin Hlw) as (T1 & T2 & T3).
  split; [|split; [exact T2 | exact T3]]. cbn [arn]. apply ck_op; [| | exact Hf | exact T1].
  - apply (occ_bound p _ _ _ _ a CPrd CI64 Hg Hca Hna). occ.
  - apply (occ_bound p _ _ _ _ b CPrd CI64 Hg Hcb Hnb). occ.
Qed.

(* the invocation of an integer continuation *)
Lemma ck_invoke_ret : forall Ga k x', AxCheck.bound Ga k Cns (Decl cont_name) = None -> ~ In (idn x') (ids Ga) ->
  acheck ts ds' (mkb x' Ext I64 :: Ga) (Invoke k ret_name cont_ty [mkb x' Ext I64]) = None.
Proof.
  intros Ga k x' Hk Hx. unfold cont_ty, shrink_identifier.
  eapply ck_invoke; [apply (find_type_cont p Hcont) | apply find_xtor_shrink; reflexivity | now apply bound_skip |].
  intros what. cbn. unfold AxCheck.bound. cbn [AxCheck.lookup_b bvar]. rewrite N.eqb_refl. reflexivity.
Qed.

Lemma tl_lit_var : forall k z ty c b t', TLs (S k) (FsCut (FsLit z) ty (FsXVar c b t')).
Proof.
  intros k z ty c b t'. tstart. cbn [rn_stmt rn_term shrink_step shrink_cut] in Hsh. unfold shrink_identifier, fresh_var, fresh_identifier in Hsh. inv Hsh.
  apply cut_typing in Hck as (Hty & Hcp & Hck).
  apply lit_typing in Hcp as [_ ->].
  apply var_typing in Hck as Hck.
  apply nc_cut in Hnc as [_ Hncb]. cbn [nc_term] in Hncb.
  set (x' := ("x"%string, N.succ (s_max st))) in *.
  assert (Hx' : th x' = x') by apply (th_fresh_var p _ _ _ _ _ Hinv).
  assert (Hni : ~ In (idn x') (ids Ga)) by (eapply ginv_fresh; [exact Hgi | cbn [s_max idn snd x']; lia]).
  split; [|split; [reflexivity | exact Hlw]].
  cbn [arn invoke_ret]. unfold arn_ctx, arn_binding, shrink_identifier. cbn [map bvar bchi bty]. rewrite Hx'.
  apply ck_literal; [now apply fresh_for_intro|]. apply ck_invoke_ret; [|exact Hni].
  apply (occ_bound p _ _ _ _ b CCns CI64 Hg Hck Hncb). occ.
Qed.

Lemma tl_op_var : forall k a o b ty c v t', TLs (S k) (FsCut (FsOp a o b) ty (FsXVar c v t')).
Proof.
  intros k a o b ty c v t'. tstart. cbn [rn_stmt rn_term shrink_step shrink_cut] in Hsh. unfold shrink_identifier, fresh_var, fresh_identifier in Hsh. inv Hsh.
  apply cut_typing in Hck as (Hty & Hcp & Hck).
  apply op_typing in Hcp as (_ & -> & Hca & Hcb).
  apply var_typing in Hck as Hck.
  apply nc_cut in Hnc as [Hnco Hncv]. cbn [nc_term] in Hnco, Hncv. apply andb_prop in Hnco as [Hna Hnb].
  set (x' := ("x"%string, N.succ (s_max st))) in *.
  assert (Hx' : th x' = x') by apply (th_fresh_var p _ _ _ _ _ Hinv).
  assert (Hni : ~ In (idn x') (ids Ga)) by (eapply ginv_fresh; [exact Hgi | cbn [s_max idn snd x']; lia]).
  split; [|split; [reflexivity | exact Hlw]].
  cbn [arn invoke_ret]. unfold arn_ctx, arn_binding, shrink_identifier. cbn [map bvar bchi bty]. rewrite Hx'.
  apply ck_op; [| | now apply fresh_for_intro |].
  - apply (occ_bound p _ _ _ _ a CPrd CI64 Hg Hca Hna). occ.
  - apply (occ_bound p _ _ _ _ b CPrd CI64 Hg Hcb Hnb). occ.
  - apply ck_invoke_ret; [|exact Hni]. apply (occ_bound p _ _ _ _ v CCns CI64 Hg Hck Hncv). occ.
Qed.

(* a Core variable v that becomes another name z of an AxCut variable *)
Lemma alias_one : forall (need need' : cident -> Prop) Ga G rho th st st' v c t z,
  inv p G rho th st -> grel p need (fun y => th (rho y)) Ga G -> ginv p Ga G st st' -> decl_ok p G ->
  ~ In (cid_id v) (cids G) -> (cid_id v <= m0)%N -> ty_ok data codata t = true ->
  In (mkcb z c t) G -> need z -> (forall y, need' y -> need y) ->
  let rho' := fun y => subst_ident [(cid_id v, rho z)] (rho y) in
  inv p ([mkcb v c t] ++ G) rho' th st /\
  grel p need' (fun y => th (rho' y)) Ga ([mkcb v c t] ++ G) /\
  ginv p Ga ([mkcb v c t] ++ G) st st' /\ decl_ok p ([mkcb v c t] ++ G).
Proof.
  intros need need' Ga G rho th st st' v c t z Hinv Hg Hgi Hdecl Hv Hvm Hty Hz Hnz Hn rho'.
  assert (Hids : forall i, In i (cids [mkcb v c t]) -> ~ In i (cids G) /\ (i <= m0)%N) by (intros i [<-|[]]; auto).
  assert (Hra : rho' v = rho z).
  { unfold rho'. rewrite (inv_rho _ _ _ _ _ Hinv v Hv Hvm). cbn [subst_ident]. now rewrite N.eqb_refl. }
  split; [|split; [|split]].
  - apply (inv_ext p G rho th st [mkcb v c t] [rho z]); auto.
    + repeat constructor. intros [].
    + intros z0 [<-|[]]. apply (inv_rng _ _ _ _ _ Hinv (mkcb z c t) Hz).
  - eapply grel_alias_list with (pi := fun y => th (rho y)) (need := need); [exact Hg | |].
    + intros b Hb Hb'. split; [now apply Hn|]. unfold rho'.
      pose proof (inv_old p _ _ _ _ [cid_id v] [rho z] _ Hinv Hb Hids) as Ho. cbn [combine] in Ho. now rewrite Ho.
    + intros b [<-|[]]. exists (mkcb z c t). cbn [cbvar cbchi cbty]. rewrite Hra. auto.
  - now apply ginv_app_G.
  - intros b Hb. apply in_app_or in Hb as [[<-|[]]|Hb]; [exact Hty | now apply Hdecl].
Qed.

(* <mu a.s | b> and <x | mu~ y.s>: the bound variable becomes a name of the other one *)
Lemma tl_rename : forall k, TLn k -> forall s p0 ty k0 c1 a s' t1 c2 b t2,
  sided s p0 k0 (FsMu c1 a s' t1) (FsXVar c2 b t2) -> TLs (S k) (FsCut p0 ty k0).
Proof.
  intros k IH s p0 ty k0 c1 a s' t1 c2 b t2 Hor. tstart. cbn [rn_stmt] in Hsh.
  rewrite (shrink_rename_eq _ _ _ _ _ _ _ _ _ _ _ _ _ (sided_cut_of _ _ _ _ _ (sided_rn rho _ _ _ _ _ Hor))) in Hsh.
  rewrite subst_is_rn, rn_comp in Hsh.
  destruct (sided_typing _ _ _ _ _ _ _ _ _ _ Hor Hck) as (Hty & Hcs & Hcb). apply mu_typing in Hcs. apply var_typing in Hcb.
  apply (ib_sided _ _ _ _ _ _ _ Hor) in Hib as [Hib _]. rewrite ib_term_mu in Hib. apply andb_prop in Hib as [Hia Hib]. apply id_le_le in Hia.
  apply (ub_sided _ _ _ _ _ _ _ Hor) in Hub as [Hub _]. cbn [ub_term] in Hub. apply andb_prop in Hub as [Hua Hub]. apply negb_mem_notin in Hua.
  apply (nc_sided _ _ _ _ _ _ _ Hor) in Hnc as [Hncs Hncb]. cbn [nc_term] in Hncs, Hncb.
  pose proof (occ_binding _ _ _ _ Hcb Hncb) as Hbin.
  destruct (alias_one _ (fun y => occurs y s') _ _ _ _ _ _ a (opp s) ty b Hinv Hg Hgi Hdecl Hua Hia Hty Hbin
              (occ_sided _ _ _ _ _ _ _ Hor (or_intror eq_refl)) (fun y Hy => occ_sided _ _ _ _ _ _ _ Hor (or_introl Hy)))
    as (Hinv' & Hg' & Hgi' & Hdecl').
  exact (IH s' lbl _ _ th st t st' Ga Hinv' Hcs Hub Hib Hncs Hdecl' Hsh Hg' Hgi' Hlin Hlw).
Qed.

Lemma tl_crit_i64 : forall k, TLn k -> forall c1 a sp t1 c2 x sc t2, TLs (S k) (FsCut (FsMu c1 a sp t1) CI64 (FsMu c2 x sc t2)).
Proof.
  intros k IH c1 a sp t1 c2 x sc t2. tstart.
  cbn [rn_stmt rn_term shrink_step shrink_cut shrink_critical_pairs] in Hsh. unfold shrink_identifier in Hsh.
  destruct (shrink_stmt k _ (rn_stmt rho sc) st) as [[body st1]|] eqn:E1; [|discriminate Hsh]. cbn [sbind] in Hsh.
  destruct (shrink_stmt k _ (rn_stmt rho sp) st1) as [[next st2]|] eqn:E2; [|discriminate Hsh]. cbn [sbind] in Hsh. inv Hsh.
  destruct (cut_terms p _ _ _ _ Hck Hub Hib Hnc) as (Hty & (Hcp & Hub1 & Hib1 & Hn1) & (Hcc & Hub2 & Hib2 & Hn2)).
  destruct (mu_parts p _ _ _ _ _ _ _ Hcp Hub1 Hib1 Hn1) as (Hcsp & Hua & Hia & Hubp & Hibp & Hncp').
  destruct (mu_parts p _ _ _ _ _ _ _ Hcc Hub2 Hib2 Hn2) as (Hcsc & Hux & Hix & Hubc & Hibc & Hncc').
  pose proof (nc_cut_mu_l _ _ _ _ _ _ _ Hnc) as Hncp. pose proof (nc_cut_mu_r _ _ _ _ _ _ _ Hnc) as Hncc.
  destruct (shrink_stmt_mono _ _ _ _ _ _ E1) as [Hm1 (nd1 & Hl1)].
  assert (Hinv1 : inv p G rho th st1) by (eapply inv_st_mono; eauto).
  destruct (shrink_stmt_mono _ _ _ _ _ _ E2) as [Hm2 (nd2 & Hl2)].
  assert (Hgi1 : ginv p Ga G st st1) by (eapply ginv_sub; [exact Hgi | lia | lia]).
  assert (Hgi2 : ginv p Ga G st1 st') by (eapply ginv_sub; [exact Hgi | lia | lia]).
  destruct (push_old _ (fun y => occurs y sc) _ _ _ _ _ _ x CPrd CI64 Hinv Hg Hgi1 Hux Hix ltac:(intros y Hy; occ)) as (Hfx & Hgx & Hgix).
  destruct (IH sc lbl _ rho th st body st1 _ (inv_push p _ _ _ _ x CPrd CI64 Hinv Hux Hix) Hcsc Hubc Hibc Hncc (decl_push _ x CPrd CI64 Hdecl eq_refl) E1 Hgx Hgix
              ltac:(eapply lifted_in'_mono; eauto) Hlw) as (T1 & T2 & T3).
  destruct (push_old _ (fun y => occurs y sp) _ _ _ _ _ _ a CCns CI64 Hinv1 Hg Hgi2 Hua Hia ltac:(intros y Hy; occ)) as (Hfa & Hga & Hgia).
  destruct (IH sp lbl _ rho th st1 next st' _ (inv_push p _ _ _ _ a CCns CI64 Hinv1 Hua Hia) Hcsp Hubp Hibp Hncp (decl_push _ a CCns CI64 Hdecl eq_refl) E2 Hga Hgia Hlin T3) as (U1 & U2 & U3).
  split; [|split; [cbn [pre_linear]; now rewrite T2, U2 | exact U3]].
  rewrite arn_create. unfold cont_ty, shrink_identifier. cbn [option_map arn_cls map fst snd].
  eapply ck_create; [apply (find_type_cont p Hcont) | | exact Hfa | exact U1].
  constructor; [|constructor]. cbn [fst snd shrink_declaration txtors cont_int ctxtors map shrink_xtor xname xargs cxname cxargs]. unfold shrink_identifier.
  split; [reflexivity|]. split; [intros what; reflexivity|]. split.
  - cbn [AxCheck.fresh_all bvar]. now rewrite Hfx.
  - exact T1.
Qed.

Lemma pre_linear_switch : forall v t cls, pre_linear (Switch v t cls) = forallb (fun c : clause => pre_linear (snd c)) cls.
Proof. intros. simpl. induction cls as [|[[x c] b] r IH]; [reflexivity|]. simpl. now rewrite IH. Qed.
Lemma pre_linear_create : forall v t cls n,
  pre_linear (Create v t None cls n) = forallb (fun c : clause => pre_linear (snd c)) cls && pre_linear n.
Proof. intros. simpl. f_equal. induction cls as [|[[x c] b] r IH]; [reflexivity|]. simpl. now rewrite IH. Qed.

(* the chirality collapse at declared types *)
Lemma sb_data : forall x T, is_codata codata (CDecl T) = false ->
  shrink_binding codata (mkcb x CPrd (CDecl T)) = mkb x Prd (Decl T) /\ shrink_binding codata (mkcb x CCns (CDecl T)) = mkb x Cns (Decl T).
Proof. intros x T H. apply (shrink_binding_chirality codata x T). exact H. Qed.
Lemma sb_codata : forall x T, is_codata codata (CDecl T) = true ->
  shrink_binding codata (mkcb x CPrd (CDecl T)) = mkb x Cns (Decl T) /\ shrink_binding codata (mkcb x CCns (CDecl T)) = mkb x Prd (Decl T).
Proof. intros x T H. apply (shrink_binding_chirality codata x T). exact H. Qed.

Lemma find_decl_in : forall l T d, find_decl l T = Some d -> In d l.
Proof. intros l T d H. unfold find_decl in H. apply find_some in H. tauto. Qed.

Lemma push_params : forall (need need' : cident -> Prop) Ga G rho th st st' ctx sg,
  inv p G rho th st -> grel p need (fun y => th (rho y)) Ga G -> ginv p Ga G st st' -> decl_ok p G ->
  NoDup (cids ctx) -> (forall i, In i (cids ctx) -> ~ In i (cids G) /\ (i <= m0)%N) ->
  fparams_ok ctx sg = true -> (forall b, In b sg -> ty_ok data codata (cbty b) = true) ->
  (forall y, need' y -> need y) ->
  AxCheck.fresh_all Ga (shrink_context codata ctx) = None /\
  grel p need' (fun y => th (rho y)) (shrink_context codata ctx ++ Ga) (ctx ++ G) /\
  ginv p (shrink_context codata ctx ++ Ga) (ctx ++ G) st st' /\ decl_ok p (ctx ++ G).
Proof.
  intros need need' Ga G rho th st st' ctx sg Hinv Hg Hgi Hdecl Hnd Hids Hps Hsg Hn.
  assert (Hni : forall i, In i (ids (shrink_context codata ctx)) -> ~ In i (ids Ga)).
  { intros i Hi. rewrite ids_shrink_context in Hi. destruct (Hids i Hi). eapply ginv_old; eauto. }
  split; [apply fresh_all_intro; [rewrite ids_shrink_context; exact Hnd | exact Hni]|]. split; [|split].
  - eapply grel_push_list with (pi := fun y => th (rho y)) (need := need); [exact Hg | | rewrite ids_shrink_context; exact Hnd | exact Hni |].
    + intros b Hb Hb'. split; [now apply Hn | reflexivity].
    + clear -Hinv Hids. induction ctx as [|b r IH]; [constructor|]. cbn [shrink_context map]. constructor.
      * rewrite shrink_binding_var. destruct (Hids (cid_id (cbvar b)) (or_introl eq_refl)) as [H1 H2].
        rewrite (inv_self p _ _ _ _ _ Hinv H1 H2). auto.
      * apply IH. intros i Hi. apply Hids. now right.
  - intros i Hi. unfold ids in Hi. rewrite map_app in Hi. apply in_app_or in Hi as [Hi|Hi].
    + fold (ids (shrink_context codata ctx)) in Hi. rewrite ids_shrink_context in Hi. destruct (Hids i Hi) as [H1 H2].
      split; [left; rewrite cids_app; apply in_or_app; now left|]. pose proof (inv_st _ _ _ _ _ Hinv). lia.
    + destruct (Hgi i Hi) as [[A|A] Bn]; (split; [|exact Bn]); [left; rewrite cids_app; apply in_or_app; now right | now right].
  - intros b Hb. apply in_app_or in Hb as [Hb|Hb]; [|now apply Hdecl].
    clear -Hps Hsg Hb. revert sg Hps Hsg. induction ctx as [|a r IH]; intros [|s sr] Hps Hsg; simpl in Hps; try discriminate; [contradiction|].
    apply andb_prop in Hps as [H1 H2]. destruct Hb as [<-|Hb].
    + apply csame_sig_eq in H1 as [_ Ht]. rewrite Ht. apply Hsg. now left.
    + eapply IH; eauto. intros b0 Hb0. apply Hsg. now right.
Qed.

Lemma cls_typed : forall k, TLn k -> forall lbl side T cls xs G rho th st cls' st' Ga,
  inv p G rho th st ->
  clauses_match side T cls xs = None -> check_bodies data codata defs G cls = None ->
  ub_clauses (cids G) cls = true -> ib_clauses m0 cls = true -> nc_clauses (cvars G) cls = true -> decl_ok p G ->
  (forall sg, In sg xs -> forall b, In b (cxargs sg) -> ty_ok data codata (cbty b) = true) ->
  shrink_clauses (shrink_stmt k (mksenv D codata lbl)) (mksenv D codata lbl) (rn_clauses rho cls) st = SOk (cls', st') ->
  grel p (fun x => occ_clauses x cls) (fun x => th (rho x)) Ga G -> ginv p Ga G st st' ->
  lifted_in' ds' st' -> lift_wt p ds' st ->
  cls_ok ts ds' Ga (arn_cls th cls') (map (shrink_xtor codata) xs) /\
  forallb (fun c : clause => pre_linear (snd c)) cls' = true /\ lift_wt p ds' st'.
Proof.
  intros k IH lbl side T cls. induction cls as [|[c x ctx b] r IHr]; intros xs G rho th st cls' st' Ga Hinv Hcm Hcb Hub Hib Hnc Hdecl Hxs Hsh Hg Hgi Hlin Hlw.
  - destruct xs; [|discriminate Hcm]. simpl in Hsh. inv Hsh. split; [constructor | split; [reflexivity | exact Hlw]].
  - destruct xs as [|sg xr]; [discriminate Hcm|]. cbn [clauses_match] in Hcm.
    apply seq_none in Hcm as [_ Hcm]. apply seq_none in Hcm as [Hname Hcm]. apply seq_none in Hcm as [Hps Hcm].
    apply fensure_none in Hname. apply fensure_none in Hps. apply cident_eqb_eq in Hname.
    cbn [rn_clauses map rn_clause shrink_clauses] in Hsh. fold (rn_clauses rho r) in Hsh.
    destruct (shrink_stmt k _ (rn_stmt rho b) st) as [[b' st1]|] eqn:E1; [|discriminate Hsh]. cbn [sbind] in Hsh.
    destruct (shrink_clauses _ _ (rn_clauses rho r) st1) as [[r' st2]|] eqn:E2; [|discriminate Hsh]. cbn [sbind] in Hsh. inv Hsh.
    rewrite check_bodies_cons in Hcb. destruct (check_stmt data codata defs (ctx ++ G) b) eqn:Hcb1; [discriminate|].
    unfold ub_clauses in Hub. cbn [forallb ub_clause] in Hub. apply andb_prop in Hub as [Hub1 Hubr]. apply andb_prop in Hub1 as [Hubc Hubb].
    apply fresh_ids_spec in Hubc as [Hnd Hnotin]. rewrite ub_cids_app in Hubb.
    unfold ib_clauses in Hib. cbn [forallb clause_ctx clause_body] in Hib. apply andb_prop in Hib as [Hib1 Hibr]. apply andb_prop in Hib1 as [Hibc Hibb].
    unfold nc_clauses in Hnc. cbn [forallb clause_ctx clause_body] in Hnc. apply andb_prop in Hnc as [Hncb Hncr].
    unfold cvars in Hncb. rewrite <- map_app in Hncb. fold (cvars (ctx ++ G)) in Hncb.
    destruct (shrink_stmt_mono _ _ _ _ _ _ E1) as [Hm1 (nd1 & Hl1)].
    assert (Hinv1 : inv p G rho th st1) by (eapply inv_st_mono; eauto).
    destruct (shrink_clauses_mono _ _ _ _ _ _ E2) as [Hm2 (nd2 & Hl2)].
    assert (Hids : forall i, In i (cids ctx) -> ~ In i (cids G) /\ (i <= m0)%N).
    { intros i Hi. split; [now apply Hnotin | eapply ctx_le_ids; eauto]. }
    assert (Hgi1 : ginv p Ga G st st1) by (eapply ginv_sub; [exact Hgi | lia | lia]).
    destruct (push_params _ (fun y => occurs y b) _ _ _ _ _ _ ctx (cxargs sg) Hinv Hg Hgi1 Hdecl Hnd Hids Hps
                (Hxs sg (or_introl eq_refl))) as (Hfa & Hg' & Hgi' & Hdecl').
    { intros y Hy. eexists. split; [left; reflexivity | exact Hy]. }
    destruct (IH b lbl (ctx ++ G) rho th st b' st1 _ (inv_push_list p _ _ _ _ _ Hinv Hnd Hids) Hcb1 Hubb Hibb Hncb Hdecl' E1 Hg' Hgi'
                ltac:(eapply lifted_in'_mono; eauto) Hlw) as (T1 & T2 & T3).
    destruct (IHr xr G rho th st1 r' st' Ga Hinv1 Hcm Hcb Hubr Hibr Hncr Hdecl (fun s0 H0 => Hxs s0 (or_intror H0)) E2) as (U1 & U2 & U3); auto.
    { intros b0 Hb0 (c0 & Hc0 & Hoc). apply Hg; [exact Hb0|]. exists c0. split; [now right | exact Hoc]. }
    { eapply ginv_sub; [exact Hgi | lia | lia]. }
    split; [|split; [cbn [forallb snd]; now rewrite T2, U2 | exact U3]].
    cbn [arn_cls map fst snd]. constructor; [|exact U1]. cbn [fst snd shrink_xtor xname xargs]. unfold shrink_identifier.
    split; [reflexivity|]. split; [apply params_ok_shrink; exact Hps|]. split; [exact Hfa | exact T1].
Qed.

(* [sd s]: the declarations whose xtors stand on side [s] (constructors are producers, destructors consumers);
   [collapse s c]: the AxCut chirality of a variable of chirality c at a type of [sd s] *)
Definition sd (s : cchi) : list ctydecl := match s with CPrd => data | CCns => codata end.
Definition collapse (s c : cchi) : chi := match s, c with CPrd, CPrd | CCns, CCns => Prd | _, _ => Cns end.
Lemma sd_opp : forall s, (match opp s with CPrd => codata | CCns => data end) = sd s.
Proof. intros [|]; reflexivity. Qed.
Lemma collapse_same : forall s, collapse s s = Prd.
Proof. intros [|]; reflexivity. Qed.
Lemma collapse_opp : forall s, collapse s (opp s) = Cns.
Proof. intros [|]; reflexivity. Qed.
Lemma decl_at : forall s T d, find_decl (sd s) T = Some d ->
  AxCheck.find_type ts T = Some (shrink_declaration codata d) /\ ty_ok data codata (CDecl T) = true /\
  In d (data ++ codata) /\ forall x c, shrink_binding codata (mkcb x c (CDecl T)) = mkb x (collapse s c) (Decl T).
Proof.
  intros [|] T d Hd; cbn [sd] in Hd.
  - split; [apply (find_type_data p _ _ Hd)|]. split; [unfold ty_ok; now rewrite Hd|]. split; [apply in_or_app; left; eapply find_decl_in; eauto|].
    intros x [|]; apply (sb_data x T (data_not_codata p Hdisj _ _ Hd)).
  - split; [apply (find_type_codata p Hdisj Hcont _ _ Hd)|]. split; [unfold ty_ok; rewrite Hd; now destruct (find_decl data T)|]. split; [apply in_or_app; right; eapply find_decl_in; eauto|].
    intros x [|]; apply (sb_codata x T (codata_is_codata p _ _ Hd)).
Qed.

(* <x | case {..}> and <cocase {..} | a>: the type's xtors stand on the side [s] of the variable *)
Lemma tl_switch : forall k, TLn k -> forall s p0 ty k0 c1 x t1 c2 cls t2,
  sided s p0 k0 (FsXVar c1 x t1) (FsXCase c2 cls t2) -> TLs (S k) (FsCut p0 ty k0).
Proof.
  intros k IH s p0 ty k0 c1 x t1 c2 cls t2 Hor. tstart. cbn [rn_stmt] in Hsh.
  rewrite (shrink_switch_eq _ _ _ _ _ _ _ _ _ _ _ _ (sided_cut_of _ _ _ _ _ (sided_rn rho _ _ _ _ _ Hor))) in Hsh.
  apply sbind_ok in Hsh as ([cls' st1] & E1 & Hsh). inv Hsh.
  destruct (sided_typing _ _ _ _ _ _ _ _ _ _ Hor Hck) as (Hty & Hcx & Hcc). apply var_typing in Hcx.
  apply xcase_typing in Hcc as (T & d & -> & Hd & Hcm & Hcb). rewrite sd_opp in Hd.
  destruct (decl_at _ _ _ Hd) as (Hft & _ & Hdin & Hsb).
  apply (ib_sided _ _ _ _ _ _ _ Hor) in Hib as [_ Hib]. rewrite ib_term_xcase in Hib.
  apply (ub_sided _ _ _ _ _ _ _ Hor) in Hub as [_ Hub]. rewrite ub_term_xcase in Hub.
  apply (nc_sided _ _ _ _ _ _ _ Hor) in Hnc as [Hncx Hncc]. rewrite nc_term_xcase in Hncc. cbn [nc_term] in Hncx.
  destruct (cls_typed k IH lbl (opp s) T cls (ctxtors d) G rho th st cls' st' Ga Hinv Hcm Hcb Hub Hib Hncc Hdecl (Hfields d Hdin) E1) as (T1 & T2 & T3); auto.
  { eapply grel_weaken; [exact Hg | intros y Hy; apply (occ_sided _ _ _ _ _ _ _ Hor); right; apply occ_term_xcase; assumption]. }
  split; [|split; [rewrite pre_linear_switch; exact T2 | exact T3]].
  rewrite arn_switch. cbn [shrink_ty]. unfold shrink_identifier.
  eapply ck_switch; [exact Hft | | exact T1].
  pose proof (occ_bound p _ _ _ _ x s (CDecl T) Hg Hcx Hncx) as Hb. rewrite Hsb, collapse_same in Hb.
  apply Hb. apply (occ_sided _ _ _ _ _ _ _ Hor). now left.
Qed.

(* <mu a.s | case {..}> and <cocase {..} | mu~ x.s> *)
Lemma tl_create : forall k, TLn k -> forall s p0 ty k0 c1 a s' t1 c2 cls t2,
  sided s p0 k0 (FsMu c1 a s' t1) (FsXCase c2 cls t2) -> TLs (S k) (FsCut p0 ty k0).
Proof.
  intros k IH s p0 ty k0 c1 a s' t1 c2 cls t2 Hor. tstart. cbn [rn_stmt] in Hsh.
  rewrite (shrink_create_eq _ _ _ _ _ _ _ _ _ _ _ _ _ (sided_cut_of _ _ _ _ _ (sided_rn rho _ _ _ _ _ Hor))) in Hsh.
  apply sbind_ok in Hsh as ([cls' st1] & E1 & Hsh). apply sbind_ok in Hsh as ([next st2] & E2 & Hsh). inv Hsh.
  destruct (sided_typing _ _ _ _ _ _ _ _ _ _ Hor Hck) as (Hty & Hcs & Hcc). apply mu_typing in Hcs.
  apply xcase_typing in Hcc as (T & d & -> & Hd & Hcm & Hcb). rewrite sd_opp in Hd.
  destruct (decl_at _ _ _ Hd) as (Hft & Hok & Hdin & Hsb).
  apply (ib_sided _ _ _ _ _ _ _ Hor) in Hib as [Hib1 Hibc]. rewrite ib_term_xcase in Hibc. rewrite ib_term_mu in Hib1.
  apply andb_prop in Hib1 as [Hia Hibs]. apply id_le_le in Hia.
  apply (ub_sided _ _ _ _ _ _ _ Hor) in Hub as [Hub1 Hubc]. rewrite ub_term_xcase in Hubc. cbn [ub_term] in Hub1.
  apply andb_prop in Hub1 as [Hua Hubs]. apply negb_mem_notin in Hua.
  apply (nc_sided _ _ _ _ _ _ _ Hor) in Hnc as [Hncs Hncc]. rewrite nc_term_xcase in Hncc. cbn [nc_term] in Hncs.
  destruct (shrink_clauses_mono _ _ _ _ _ _ E1) as [Hm1 (nd1 & Hl1)].
  assert (Hinv1 : inv p G rho th st1) by (eapply inv_st_mono; eauto).
  destruct (shrink_stmt_mono _ _ _ _ _ _ E2) as [Hm2 (nd2 & Hl2)].
  destruct (cls_typed k IH lbl (opp s) T cls (ctxtors d) G rho th st cls' st1 Ga Hinv Hcm Hcb Hubc Hibc Hncc Hdecl (Hfields d Hdin) E1) as (T1 & T2 & T3); auto.
  { eapply grel_weaken; [exact Hg | intros y Hy; apply (occ_sided _ _ _ _ _ _ _ Hor); right; apply occ_term_xcase; assumption]. }
  { eapply ginv_sub; [exact Hgi | lia | lia]. }
  { eapply lifted_in'_mono; eauto. }
  assert (Hgi2 : ginv p Ga G st1 st') by (eapply ginv_sub; [exact Hgi | lia | lia]).
  destruct (push_old _ (fun y => occurs y s') _ _ _ _ _ _ a (opp s) (CDecl T) Hinv1 Hg Hgi2 Hua Hia
              (fun y Hy => occ_sided _ _ _ _ _ _ _ Hor (or_introl Hy))) as (Hfa & Hga & Hgia).
  destruct (IH s' lbl _ rho th st1 next st' _ (inv_push p _ _ _ _ a (opp s) (CDecl T) Hinv1 Hua Hia) Hcs Hubs Hibs Hncs (decl_push _ a (opp s) (CDecl T) Hdecl Hok) E2 Hga Hgia Hlin T3) as (U1 & U2 & U3).
  split; [|split; [rewrite pre_linear_create, T2, U2; reflexivity | exact U3]].
  rewrite arn_create. cbn [shrink_ty option_map]. unfold shrink_identifier.
  eapply ck_create; [exact Hft | exact T1 | exact Hfa |].
  rewrite Hsb, collapse_opp in U1. exact U1.
Qed.

Lemma args_typed : forall (need : cident -> Prop) rho th Ga G args sg what0,
  grel p need (fun x => th (rho x)) Ga G -> fargs_ok what0 G args sg = None ->
  forallb (nc_var (cvars G)) (cvars args) = true -> (forall a, In a args -> need (cbvar a)) ->
  forall what, AxCheck.args_ok what Ga (arn_ctx th (shrink_context codata (rn_ctx rho args))) (shrink_context codata sg) = None.
Proof.
  intros need rho th Ga G args sg what0 Hg Hfa Hnc Hneed what.
  eapply args_ok_shrink; [exact Hg | | eapply fargs_sig; eauto].
  intros a Ha. split; [eapply args_in_G; eauto | now apply Hneed].
Qed.

(* <K(args) | mu~ x.s> and <mu a.s | D(args)> *)
Lemma tl_let : forall k, TLn k -> forall s p0 ty k0 c1 K args t1 c2 x s' t2,
  sided s p0 k0 (FsXtor c1 K args t1) (FsMu c2 x s' t2) -> TLs (S k) (FsCut p0 ty k0).
Proof.
  intros k IH s p0 ty k0 c1 K args t1 c2 x s' t2 Hor. tstart. cbn [rn_stmt] in Hsh.
  rewrite (shrink_let_eq _ _ _ _ _ _ _ _ _ _ _ _ _ _ (sided_cut_of _ _ _ _ _ (sided_rn rho _ _ _ _ _ Hor))) in Hsh.
  apply sbind_ok in Hsh as ([next st1] & E1 & Hsh). inv Hsh.
  destruct (sided_typing _ _ _ _ _ _ _ _ _ _ Hor Hck) as (Hty & Hcp & Hcs).
  apply xtor_typing in Hcp as (T & d & sg & -> & Hd & Hx & Hfa). apply mu_typing in Hcs. rewrite opp_invol in Hcs.
  destruct (decl_at _ _ _ Hd) as (Hft & Hok & _ & Hsb).
  apply (ib_sided _ _ _ _ _ _ _ Hor) in Hib as [_ Hib]. rewrite ib_term_mu in Hib. apply andb_prop in Hib as [Hix Hib]. apply id_le_le in Hix.
  apply (ub_sided _ _ _ _ _ _ _ Hor) in Hub as [_ Hub]. cbn [ub_term] in Hub. apply andb_prop in Hub as [Hux Hub]. apply negb_mem_notin in Hux.
  apply (nc_sided _ _ _ _ _ _ _ Hor) in Hnc as [Hnca Hncs]. cbn [nc_term] in Hnca, Hncs.
  destruct (push_old _ (fun y => occurs y s') _ _ _ _ _ _ x s (CDecl T) Hinv Hg Hgi Hux Hix
              (fun y Hy => occ_sided _ _ _ _ _ _ _ Hor (or_intror Hy))) as (Hfx & Hgx & Hgix).
  destruct (IH s' lbl _ rho th st next st' _ (inv_push p _ _ _ _ x s (CDecl T) Hinv Hux Hix) Hcs Hub Hib Hncs (decl_push _ x s (CDecl T) Hdecl Hok) E1 Hgx Hgix Hlin Hlw) as (U1 & U2 & U3).
  split; [|split; [exact U2 | exact U3]].
  cbn [arn shrink_ty]. unfold shrink_identifier.
  eapply ck_let; [exact Hft | apply find_xtor_shrink; exact Hx | | exact Hfx |].
  - cbn [shrink_xtor xargs]. eapply args_typed; eauto. intros a Ha. apply (occ_sided _ _ _ _ _ _ _ Hor). left. now apply occ_args.
  - rewrite Hsb, collapse_same in U1. exact U1.
Qed.

(* <K(args) | a> and <x | D(args)> *)
Lemma tl_invoke : forall k s p0 ty k0 c1 K args t1 c2 b t2,
  sided s p0 k0 (FsXtor c1 K args t1) (FsXVar c2 b t2) -> TLs (S k) (FsCut p0 ty k0).
Proof.
  intros k s p0 ty k0 c1 K args t1 c2 b t2 Hor. tstart. cbn [rn_stmt] in Hsh.
  rewrite (shrink_invoke_eq _ _ _ _ _ _ _ _ _ _ _ _ _ (sided_cut_of _ _ _ _ _ (sided_rn rho _ _ _ _ _ Hor))) in Hsh. inv Hsh.
  destruct (sided_typing _ _ _ _ _ _ _ _ _ _ Hor Hck) as (Hty & Hcp & Hcb).
  apply xtor_typing in Hcp as (T & d & sg & -> & Hd & Hx & Hfa). apply var_typing in Hcb.
  destruct (decl_at _ _ _ Hd) as (Hft & _ & _ & Hsb).
  apply (nc_sided _ _ _ _ _ _ _ Hor) in Hnc as [Hnca Hncb]. cbn [nc_term] in Hnca, Hncb.
  split; [|split; [reflexivity | exact Hlw]].
  cbn [arn shrink_ty]. unfold shrink_identifier.
  eapply ck_invoke; [exact Hft | apply find_xtor_shrink; exact Hx | |].
  - pose proof (occ_bound p _ _ _ _ b (opp s) (CDecl T) Hg Hcb Hncb) as Hb. rewrite Hsb, collapse_opp in Hb.
    apply Hb. apply (occ_sided _ _ _ _ _ _ _ Hor). now right.
  - cbn [shrink_xtor xargs]. eapply args_typed; eauto. intros a Ha. apply (occ_sided _ _ _ _ _ _ _ Hor). left. now apply occ_args.
Qed.

Lemma fparams_sig : forall ctx sg, fparams_ok ctx sg = true ->
  Forall2 (fun b s => cbchi b = cbchi s /\ cbty b = cbty s) ctx sg.
Proof.
  induction ctx as [|b r IH]; intros [|s sr] H; simpl in H; try discriminate; constructor.
  - apply andb_prop in H as [H1 _]. now apply csame_sig_eq.
  - apply andb_prop in H as [_ H]. now apply IH.
Qed.
Lemma alias_partner : forall (f g : cbinding -> ident) ctx args sg,
  map f ctx = map g args ->
  Forall2 (fun b s => cbchi b = cbchi s /\ cbty b = cbty s) ctx sg ->
  Forall2 (fun a s => cbchi a = cbchi s /\ cbty a = cbty s) args sg ->
  forall b, In b ctx -> exists a, In a args /\ f b = g a /\ cbchi a = cbchi b /\ cbty a = cbty b.
Proof.
  intros f g ctx. induction ctx as [|b0 r IH]; intros args sg Hm H1 H2 b Hb; [contradiction|].
  destruct args as [|a0 ar]; [discriminate|]. inversion H1 as [|? s ? sr (C1 & C2) H1']; subst. inversion H2 as [|? ? ? ? (D1 & D2) H2']; subst.
  cbn [map] in Hm. injection Hm as Hm0 Hm. destruct Hb as [<-|Hb].
  - exists a0. split; [now left|]. split; [exact Hm0|]. split; congruence.
  - destruct (IH ar sr Hm H1' H2' b Hb) as (a & Ha & E & F1 & F2). exists a. split; [now right | auto].
Qed.
Lemma find_cxtor_in : forall d K sg, find_cxtor d K = Some sg -> In sg (ctxtors d).
Proof. intros d K sg H. unfold find_cxtor in H. apply find_some in H. tauto. Qed.

Lemma known_typed : forall k, TLn k -> forall lbl side T d cls G rho th st t st' Ga K sg args what,
  inv p G rho th st -> In d (data ++ codata) ->
  clauses_match side T cls (ctxtors d) = None -> check_bodies data codata defs G cls = None ->
  ub_clauses (cids G) cls = true -> ib_clauses m0 cls = true -> nc_clauses (cvars G) cls = true -> decl_ok p G ->
  find_cxtor d K = Some sg -> fargs_ok what G args (cxargs sg) = None -> forallb (nc_var (cvars G)) (cvars args) = true ->
  shrink_known_cuts (shrink_stmt k (mksenv D codata lbl)) K (cvars (rn_ctx rho args)) (rn_clauses rho cls) st = SOk (t, st') ->
  grel p (fun x => occ_ctx x args \/ occ_clauses x cls) (fun x => th (rho x)) Ga G -> ginv p Ga G st st' ->
  lifted_in' ds' st' -> lift_wt p ds' st ->
  acheck ts ds' Ga (arn th t) = None /\ pre_linear t = true /\ lift_wt p ds' st'.
Proof.
  intros k IH lbl side T d cls G rho th st t st' Ga K sg args what Hinv Hdin Hcm Hcb Hub Hib Hnc Hdecl Hx Hfa Hnca Hsh Hg Hgi Hlin Hlw.
  destruct (clauses_match_find _ _ _ _ _ _ Hcm Hx) as (cl0 & Hf & Hn & Hps).
  assert (Hin : In cl0 cls) by (apply find_some in Hf; tauto).
  destruct (ib_clauses_in p _ _ Hib Hin) as [Hibc Hibb].
  destruct (ub_clauses_in _ _ _ Hub Hin) as [Hubc Hubb]. apply fresh_ids_spec in Hubc as [Hnd Hnotin].
  pose proof (nc_clauses_in _ _ _ Hnc Hin) as Hncb.
  unfold shrink_known_cuts in Hsh. rewrite find_rn_clauses, Hf in Hsh. cbn [option_map] in Hsh.
  destruct cl0 as [c0 x0 ctx0 b0]. cbn [rn_clause clause_ctx clause_body clause_xtor] in *.
  rewrite subst_is_rn, rn_comp in Hsh.
  assert (Hids : forall i, In i (cids ctx0) -> ~ In i (cids G) /\ (i <= m0)%N).
  { intros i Hi. split; [now apply Hnotin | eapply ctx_le_ids; eauto]. }
  assert (Hlen : List.length args = List.length ctx0).
  { rewrite (fparams_ok_length _ _ Hps). eapply fargs_ok_length; eauto. }
  pose proof (alias_names p _ _ _ _ _ _ Hinv Hnd Hids Hlen) as Hnames.
  set (zs := cvars (rn_ctx rho args)) in *.
  assert (HargG : forall a, In a args -> In a G) by (intros a Ha; eapply args_in_G; eauto).
  assert (Hinv' : inv p (ctx0 ++ G) (fun y => subst_ident (combine (cids ctx0) zs) (rho y)) th st).
  { apply inv_ext; auto. intros z Hz. unfold zs in Hz. rewrite cvars_rn_ctx in Hz. unfold cvars in Hz. rewrite map_map in Hz.
    apply in_map_iff in Hz as (a & <- & Ha). apply (inv_rng _ _ _ _ _ Hinv). now apply HargG. }
  assert (Hg' : grel p (fun y => occurs y b0) (fun y => th (subst_ident (combine (cids ctx0) zs) (rho y))) Ga (ctx0 ++ G)).
  { eapply grel_alias_list with (pi := fun y => th (rho y)); [exact Hg | |].
    - intros b Hb Hn0. split.
      + right. exists (FsClause c0 x0 ctx0 b0). split; [exact Hin | exact Hn0].
      + cbn beta. rewrite (inv_old p _ _ _ _ _ zs _ Hinv Hb Hids). reflexivity.
    - intros b Hb.
      destruct (alias_partner (fun b => th (subst_ident (combine (cids ctx0) zs) (rho (cbvar b)))) (fun a => th (rho (cbvar a)))
                  ctx0 args (cxargs sg) Hnames (fparams_sig _ _ Hps) (fargs_sig _ _ _ _ Hfa) b Hb) as (a & Ha & E & F1 & F2).
      exists a. split; [now apply HargG|]. split; [left; now apply occ_args|]. cbn beta. rewrite E. auto. }
  assert (Hdecl' : decl_ok p (ctx0 ++ G)).
  { intros b Hb. apply in_app_or in Hb as [Hb|Hb]; [|now apply Hdecl].
    destruct (Forall2_in_l _ _ _ _ (fparams_sig _ _ Hps) Hb) as (s & Hs & _ & Ht). rewrite Ht.
    eapply Hfields; eauto. eapply find_cxtor_in; eauto. }
  unfold cvars in Hncb. rewrite <- map_app in Hncb. fold (cvars (ctx0 ++ G)) in Hncb. rewrite ub_cids_app in Hubb.
  eapply (IH b0 lbl (ctx0 ++ G) _ th st t st' Ga Hinv'); eauto.
  - apply (check_bodies_in p _ _ (FsClause c0 x0 ctx0 b0) Hcb Hin).
  - now apply ginv_app_G.
Qed.

(* <K(args) | case {..}> and <cocase {..} | D(args)> *)
Lemma tl_known : forall k, TLn k -> forall s p0 ty k0 c1 K args t1 c2 cls t2,
  sided s p0 k0 (FsXtor c1 K args t1) (FsXCase c2 cls t2) -> TLs (S k) (FsCut p0 ty k0).
Proof.
  intros k IH s p0 ty k0 c1 K args t1 c2 cls t2 Hor. tstart. cbn [rn_stmt] in Hsh.
  rewrite (shrink_known_eq _ _ _ _ _ _ _ _ _ _ _ _ _ (sided_cut_of _ _ _ _ _ (sided_rn rho _ _ _ _ _ Hor))) in Hsh.
  destruct (sided_typing _ _ _ _ _ _ _ _ _ _ Hor Hck) as (Hty & Hcp & Hcc).
  apply xtor_typing in Hcp as (T & d & sg & -> & Hd & Hx & Hfa).
  apply xcase_typing in Hcc as (T' & d' & [= <-] & Hd' & Hcm & Hcb). rewrite sd_opp in Hd'. unfold sd in Hd'. rewrite Hd in Hd'. injection Hd' as <-.
  destruct (decl_at _ _ _ Hd) as (_ & _ & Hdin & _).
  apply (ib_sided _ _ _ _ _ _ _ Hor) in Hib as [_ Hib]. rewrite ib_term_xcase in Hib.
  apply (ub_sided _ _ _ _ _ _ _ Hor) in Hub as [_ Hub]. rewrite ub_term_xcase in Hub.
  apply (nc_sided _ _ _ _ _ _ _ Hor) in Hnc as [Hnca Hncc]. rewrite nc_term_xcase in Hncc. cbn [nc_term] in Hnca.
  eapply (known_typed k IH lbl (opp s) T d cls G rho th st t st' Ga K sg args); eauto.
  eapply grel_weaken; [exact Hg|]. intros y [Hy|Hy]; apply (occ_sided _ _ _ _ _ _ _ Hor); [left; exact Hy | right; apply occ_term_xcase; assumption].
Qed.
End TyCases.
