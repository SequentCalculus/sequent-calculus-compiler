(* C06, forward simulation of the x86-64 code generator, part 2: what `code_statement` emits for each
   statement of the integer fragment (inversion lemmas), and the statement-level simulation lemmas for
   Literal, Op (defined and undefined results), IfC (both forms), Exit (the move into rax) and
   Substitute, for EVERY context (any number of variables, in registers and spill slots, any aliasing
   of operands).  They are compositions of the selection lemmas of Proof/X86Sel.v and of the
   parallel-move theorem of Proof/X86ParMoves.v with the state relation of Proof/X86SimRel.v. *)
From Coq Require Import List ZArith NArith String Bool Lia FMapPositive.
From SCC Require Import Base.Sexp Lang.AxSyn Sem.AxSem Model.ParMoves Model.Backend Model.X86 Sem.X86Sem Sem.X86Wf
     Model.Linearize Model.LinCheck Generated.Constants Proof.LinBasics Proof.X86State Proof.X86Sel Proof.X86Exec Proof.X86ParMoves Proof.SubstGraph Proof.X86Subst
     Proof.X86SimRel.
From SCC Require Export Proof.SimFrag.
From SCC Require Proof.BackendInv.
Import ListNotations.
Open Scope Z_scope.
Open Scope list_scope.
(* the definitions of Proof/SimFrag.v under this module's name, for qualified uses *)
Notation bind_nth := SimFrag.bind_nth (only parsing).
Notation bind_ids := SimFrag.bind_ids (only parsing).
Notation ctx_int_nth := SimFrag.ctx_int_nth (only parsing).
Notation sig_match_nth := SimFrag.sig_match_nth (only parsing).
Notation bind_length := SimFrag.bind_length (only parsing).
Notation lin_nodup := SimFrag.lin_nodup (only parsing).
Notation bind_total := SimFrag.bind_total (only parsing).

Notation xvt := (variable_temporary x86_backend Snd).
Notation xcs := (code_statement x86_backend).

(* H : … rbind r k … = Ok _ with r the next call of the generator: name its result (pattern p), keep r = Ok p as E *)
Tactic Notation "cs_bind" hyp(H) "as" simple_intropattern(p) "eqn" ":" ident(E) :=
  match type of H with
  | context [rbind ?r _] =>
      lazymatch r with rbind _ _ => fail | _ => destruct r as [p|] eqn:E; cbn [rbind] in H; [|discriminate] end
  end.

Lemma cs_literal types n v next c lc code lc' :
  xcs types (Literal n v next) c lc = Ok (code, lc') ->
  exists tv c2, xvt (c ++ [mkb v Ext I64]) (idn v) = Ok tv /\
    xcs types next (c ++ [mkb v Ext I64]) lc = Ok (c2, lc') /\
    code = x_load_immediate tv n ++ c2.
Proof. exact (BackendInv.cs_literal x86_backend types n v next c lc code lc'). Qed.

Lemma cs_op types a o b v next c lc code lc' :
  xcs types (Op a o b v next) c lc = Ok (code, lc') ->
  exists tv ta tb c2, xvt (c ++ [mkb v Ext I64]) (idn v) = Ok tv /\
    xvt (c ++ [mkb v Ext I64]) (idn a) = Ok ta /\ xvt (c ++ [mkb v Ext I64]) (idn b) = Ok tb /\
    xcs types next (c ++ [mkb v Ext I64]) lc = Ok (c2, lc') /\
    code = x_arith o tv ta tb ++ c2.
Proof. exact (BackendInv.cs_op x86_backend types a o b v next c lc code lc'). Qed.

Lemma cs_print types nl v next c lc code lc' :
  xcs types (PrintI64 nl v next) c lc = Ok (code, lc') ->
  exists tv c2, xvt c (idn v) = Ok tv /\ xcs types next c lc = Ok (c2, lc') /\ code = x_print nl tv c ++ c2.
Proof. exact (BackendInv.cs_print x86_backend types nl v next c lc code lc'). Qed.

Lemma cs_exit types v c lc code lc' :
  xcs types (Exit v) c lc = Ok (code, lc') ->
  exists tv, xvt c (idn v) = Ok tv /\ code = x_mov (XR RETURN1) tv ++ [JMPL "cleanup"] /\ lc' = lc.
Proof. exact (BackendInv.cs_exit x86_backend types v c lc code lc'). Qed.

Lemma cs_call types l args c lc code lc' :
  xcs types (Call l args) c lc = Ok (code, lc') -> code = [JMPL (show_ident l +++ "_")] /\ lc' = lc.
Proof. exact (BackendInv.cs_call x86_backend types l args c lc code lc'). Qed.

Definition iflabel (lc : N) : string := "lab" +++ n_to_string (lc + 1)%N.
Lemma cs_ifc types so a b thenc elsec c lc code lc' :
  xcs types (IfC so a b thenc elsec) c lc = Ok (code, lc') ->
  exists ta c1 c2 lc2 c3, xvt c (idn a) = Ok ta /\
    match b with
    | None => c1 = compare_immediate ta 0 ++ [jcc so (iflabel lc)]
    | Some b => exists tb, xvt c (idn b) = Ok tb /\ c1 = compare ta tb ++ [jcc so (iflabel lc)]
    end /\
    xcs types elsec c (lc + 1)%N = Ok (c2, lc2) /\ xcs types thenc c lc2 = Ok (c3, lc') /\
    code = c1 ++ c2 ++ [LAB (iflabel lc)] ++ c3.
Proof. exact (BackendInv.cs_ifc x86_backend types so a b thenc elsec c lc code lc'). Qed.

Lemma cs_substitute types re next c lc code lc' :
  xcs types (Substitute re next) c lc = Ok (code, lc') ->
  exists c1 lc1 c2 c3,
    code_weakening_contraction x86_backend (transpose re c) c lc = Ok (c1, lc1) /\
    code_exchange x86_backend (transpose re c) c (map fst re) = Ok c2 /\
    xcs types next (map fst re) lc1 = Ok (c3, lc') /\ code = c1 ++ c2 ++ c3.
Proof. exact (BackendInv.cs_substitute x86_backend types re next c lc code lc'). Qed.

Definition lok (t : xtemp) : bool := match t with XR r => nz r | XS p => slot_off (stack_offset p) end.
Lemma loc_ok_lok t : loc_ok t -> lok t = true.
Proof.
  destruct t as [r|p]; cbn; intros H.
  - unfold nz. destruct (N.eqb_spec r 0); [contradiction|reflexivity].
  - now apply slot_off_stack_offset.
Qed.

Local Opaque slot_off stack_offset.
Ltac lc_tac :=
  repeat (cbn [local_code forallb local_instr app lok nz N.eqb negb andb
               move_to_register move_from_register add_to_register add_to_spill mul_to_register mul_to_spill
               sub_to_register sub_to_spill div_core compare compare_immediate jcc] in *;
          change STACK with 0%N in *; change TEMP with 1%N in *; change RETURN1 with 4%N in *; change RETURN2 with 5%N in *;
          repeat match goal with H : ?x = true |- context [?x] => rewrite H end);
  try reflexivity.

Lemma local_move_to_register r t : nz r = true -> local_code (move_to_register r t) = true.
Proof. intros; destruct t; lc_tac. Qed.
Lemma local_move_from_register t r : lok t = true -> local_code (move_from_register t r) = true.
Proof. intros; destruct t; lc_tac. Qed.
Lemma local_x_mov t s : lok t = true -> local_code (x_mov t s) = true.
Proof. intros H; destruct t, s; unfold x_mov; lc_tac. Qed.
Lemma local_load_immediate t i : lok t = true -> local_code (x_load_immediate t i) = true.
Proof. intros H; destruct t; unfold x_load_immediate; [|destruct (fits_i32 i)]; lc_tac. Qed.
Lemma local_compare a b : local_code (compare a b) = true.
Proof. destruct a, b; lc_tac. Qed.
Lemma local_compare_immediate a i : local_code (compare_immediate a i) = true.
Proof. destruct a; lc_tac. Qed.
Lemma local_jcc so l : local_instr (jcc so l) = true.
Proof. destruct so; reflexivity. Qed.
Lemma local_op_commutative o t s1 s2 :
  lok t = true -> local_code (op_commutative (to_register o) (to_spill o) t s1 s2) = true.
Proof.
  intros H. unfold op_commutative. destruct t as [tr|tp]; destruct (xtemp_eqb _ s1); try destruct (xtemp_eqb _ s2);
    destruct o, s1, s2; cbn [to_register to_spill]; lc_tac.
Qed.
Lemma local_sub t s1 s2 : lok t = true -> local_code (sub t s1 s2) = true.
Proof.
  intros H. unfold sub. destruct t as [tr|tp]; destruct (xtemp_eqb _ s1); try destruct (xtemp_eqb _ s2);
    destruct s1, s2; lc_tac.
Qed.
Lemma local_div_rem (is_rem : bool) t s1 s2 :
  lok t = true -> local_code (if is_rem then x_rem t s1 s2 else x_div t s1 s2) = true.
Proof.
  intros H. unfold x_rem, x_div. destruct is_rem, t, s1, s2; lc_tac; destruct (N.eqb _ 5); lc_tac.
Qed.
Lemma local_x_arith o t s1 s2 : lok t = true -> local_code (x_arith o t s1 s2) = true.
Proof.
  intros H. destruct o; cbn [x_arith].
  - exact (local_div_rem false t s1 s2 H).
  - exact (local_op_commutative AMul t s1 s2 H).
  - exact (local_div_rem true t s1 s2 H).
  - exact (local_op_commutative AAdd t s1 s2 H).
  - exact (local_sub t s1 s2 H).
Qed.
Local Transparent slot_off stack_offset.

Section Sim.
Variable im : image.
Variable CL : Z -> ident -> list clause -> Prop.
Local Notation rel := (rel CL).

Lemma vt_fresh c v t :
  NoDup (ids (c ++ [mkb v Ext I64])) -> xvt (c ++ [mkb v Ext I64]) (idn v) = Ok t -> xtpos Snd (List.length c) = Ok t.
Proof.
  intros ND H. rewrite <- H. symmetry. change (idn v) with (idn (bvar (mkb v Ext I64))).
  apply vt_tpos; auto. apply nth_error_mid.
Qed.

Theorem sim_literal c e s sp n v tv :
  rel c e s sp -> NoDup (ids (c ++ [mkb v Ext I64])) ->
  xvt (c ++ [mkb v Ext I64]) (idn v) = Ok tv ->
  exists s', exec_straight im (x_load_immediate tv n) s = Some s' /\
             rel (c ++ [mkb v Ext I64]) (e ++ [(v, VInt n)]) s' sp /\ frame_eq s s' sp.
Proof.
  intros R ND TV. apply (vt_fresh c v tv ND) in TV.
  destruct (xtpos_ok _ _ _ TV) as (L & NT & _).
  destruct (x86_load_immediate_ok im s sp tv n (rel_frame R) L NT) as (s' & E & V & P).
  exists s'. split; [exact E|]. split; [eapply rel_push; eauto|].
  eapply exec_straight_local; [|exact (rel_frame R)|exact E]. apply local_load_immediate, loc_ok_lok, L.
Qed.

Lemma op_temps c e s sp a b v x y tv ta tb :
  rel c e s sp -> NoDup (ids (c ++ [mkb v Ext I64])) ->
  lookup_int e a = Some x -> lookup_int e b = Some y ->
  xvt (c ++ [mkb v Ext I64]) (idn v) = Ok tv ->
  xvt (c ++ [mkb v Ext I64]) (idn a) = Ok ta -> xvt (c ++ [mkb v Ext I64]) (idn b) = Ok tb ->
  xtpos Snd (List.length c) = Ok tv /\ div_pre tv ta tb /\ lget s sp ta = Some x /\ lget s sp tb = Some y.
Proof.
  intros R ND LA LB TV TA TB. apply (vt_fresh c v tv ND) in TV.
  destruct (rel_operand_app CL c _ e s sp a x ta R ND LA TA) as (i & Li & Ti & Vi).
  destruct (rel_operand_app CL c _ e s sp b y tb R ND LB TB) as (j & Lj & Tj & Vj).
  destruct (xtpos_ok _ _ _ TV) as (L0 & N0 & _). destruct (xtpos_ok _ _ _ Ti) as (L1 & N1 & _).
  destruct (xtpos_ok _ _ _ Tj) as (L2 & N2 & _).
  split; [exact TV|]. split; [|auto].
  unfold div_pre. repeat split; auto.
  - eapply xtpos_snd_not_rax; eauto.
  - intros E. pose proof (xtpos_snd_rdx _ _ TV E). lia.
  - intros E; subst. destruct (tpos_inj x86_backend x86_backend_ok _ _ _ _ _ TV Ti). lia.
  - intros E; subst. destruct (tpos_inj x86_backend x86_backend_ok _ _ _ _ _ TV Tj). lia.
  - eapply xtpos_snd_not_rax; eauto.
  - eapply xtpos_snd_not_rax; eauto.
Qed.

Theorem sim_op c e s sp a o b v x y z tv ta tb :
  rel c e s sp -> NoDup (ids (c ++ [mkb v Ext I64])) ->
  lookup_int e a = Some x -> lookup_int e b = Some y -> eval_op o x y = OpVal z ->
  xvt (c ++ [mkb v Ext I64]) (idn v) = Ok tv ->
  xvt (c ++ [mkb v Ext I64]) (idn a) = Ok ta -> xvt (c ++ [mkb v Ext I64]) (idn b) = Ok tb ->
  exists s', exec_straight im (x_arith o tv ta tb) s = Some s' /\
             rel (c ++ [mkb v Ext I64]) (e ++ [(v, VInt z)]) s' sp /\ frame_eq s s' sp.
Proof.
  intros R ND LA LB EV TV TA TB.
  destruct (op_temps c e s sp a b v x y tv ta tb R ND LA LB TV TA TB) as (TV' & PRE & VA & VB).
  destruct (x86_arith_ok im o s sp tv ta tb x y z (rel_frame R) PRE VA VB EV) as (s' & E & V & P).
  exists s'. split; [exact E|]. split; [eapply rel_push; eauto|].
  eapply exec_straight_local; [|exact (rel_frame R)|exact E]. apply local_x_arith, loc_ok_lok, PRE.
Qed.

(* the undefined cases of div and rem: the code runs into the faulting idiv *)
Fixpoint exec_undef (cs : list xcode) (s : xstate) : option (string * xstate) :=
  match cs with
  | [] => None
  | c :: r => match step im c s with
              | Next s' => exec_undef r s'
              | Undefd w s' => Some (w, s')
              | _ => None
              end
  end.
Lemma exec_undef_app a b : forall s s',
  exec_straight im a s = Some s' -> exec_undef (a ++ b) s = exec_undef b s'.
Proof.
  induction a as [|c a IH]; intros s s' E; cbn [app exec_straight exec_undef] in *; [now inversion E|].
  destruct (step im c s) eqn:St; try discriminate. now apply IH.
Qed.
Lemma exec_undef_app_l a b : forall s r, exec_undef a s = Some r -> exec_undef (a ++ b) s = Some r.
Proof.
  induction a as [|c a IH]; intros s r E; cbn [app exec_undef] in *; [discriminate|].
  destruct (step im c s) eqn:St; try discriminate; auto.
Qed.
Lemma exec_undef_finishes pc : forall cs s w s',
  code_at im pc cs -> exec_undef cs s = Some (w, s') -> finishes im pc s (finish (out s') (OUndef w)).
Proof.
  intros cs. revert pc. induction cs as [|c cs IH]; intros pc s w s' CA E; cbn in E; [discriminate|].
  apply code_at_cons in CA as [C0 C1]. destruct (step im c s) as [s1| | | |w1 s1] eqn:St; try discriminate.
  - eapply exec_to_finishes; [eapply exec_next; [exact C0|exact St|apply exec_refl]|]. eapply IH; eauto.
  - inversion E; subst. eapply finishes_undef; eauto.
Qed.

Lemma div_core_undef s sp s2 a b w :
  frame_ok s sp -> loc_ok s2 -> s2 <> XR 4%N ->
  rget s 4%N = Some a -> lget s sp (divisor_loc s2) = Some b ->
  (if Z.eqb b 0 then OpUndef "div0" else if Z.eqb a min_int && Z.eqb b (-1) then OpUndef "overflow" else OpVal 0) = OpUndef w ->
  exists s', exec_undef (div_core s2) s = Some (w, s') /\ out s' = out s.
Proof.
  intros F S2 N4 A B W.
  assert (A' : rget (rset s 5%N (Some (if a <? 0 then -1 else 0))) 4%N = Some a)
    by (rewrite rget_rset_other by congruence; exact A).
  assert (D' : rget (rset s 5%N (Some (if a <? 0 then -1 else 0))) 5%N = Some (if a <? 0 then -1 else 0))
    by apply rget_rset_same.
  assert (RES : forall nx, (if negb ((if a <? 0 then -1 else 0) =? (if a <? 0 then -1 else 0)) then Fault "idiv-wide-dividend" (rset s 5%N (Some (if a <? 0 then -1 else 0)))
                 else if b =? 0 then Undefd "div0" (rset s 5%N (Some (if a <? 0 then -1 else 0)))
                 else if (a =? min_int) && (b =? -1) then Undefd "overflow" (rset s 5%N (Some (if a <? 0 then -1 else 0)))
                 else Next nx) = Undefd w (rset s 5%N (Some (if a <? 0 then -1 else 0)))).
  { intros nx. rewrite Z.eqb_refl. cbn [negb]. destruct (b =? 0); [inversion W; reflexivity|].
    destruct ((a =? min_int) && (b =? -1)); [inversion W; reflexivity|discriminate]. }
  exists (rset s 5%N (Some (if a <? 0 then -1 else 0))). split; [|reflexivity].
  unfold div_core, divisor_loc in *. rewrite ?R5, ?R1 in *. destruct s2 as [r|p]; cbn [lget loc_ok] in *.
  - destruct (N.eqb_spec r 5%N) as [->|NE]; cbn [lget] in B; cbn [exec_undef step]; unfold need;
      rewrite A; cbv iota beta; rewrite A', D'; cbv iota beta;
      rewrite rget_rset_other by congruence; rewrite B; cbv iota beta; rewrite RES; reflexivity.
  - cbn [exec_undef step]; unfold need.
    rewrite A. cbv iota beta. rewrite A', D'. cbv iota beta.
    assert (F1 : frame_ok (rset s 5%N (Some (if a <? 0 then -1 else 0))) sp) by frame.
    rewrite (ea_stack _ sp) by (exact F1 || assumption). unfold withm. rewrite mload_slot by auto.
    rewrite sget_rset, B. cbv iota beta. rewrite RES. reflexivity.
Qed.

Lemma div_rem_undef (is_rem : bool) s sp t s1 s2 a b w :
  frame_ok s sp -> div_pre t s1 s2 ->
  lget s sp s1 = Some a -> lget s sp s2 = Some b ->
  (if Z.eqb b 0 then OpUndef "div0" else if Z.eqb a min_int && Z.eqb b (-1) then OpUndef "overflow" else OpVal 0) = OpUndef w ->
  exists s', exec_undef (if is_rem then x_rem t s1 s2 else x_div t s1 s2) s = Some (w, s') /\ out s' = out s.
Proof.
  intros F PRE A B W.
  destruct (div_entry_ok im s sp t s1 s2 a b F PRE A B) as (s3 & E3 & F3 & A3 & B3 & _ & _ & _ & _ & O3).
  destruct PRE as (_ & _ & S2 & _ & _ & _ & _ & _ & _ & _ & _ & N24).
  destruct (div_core_undef s3 sp s2 a b w F3 S2 N24 A3 B3 W) as (s' & E & O).
  exists s'. split; [|congruence].
  rewrite x_div_rem_eq, (exec_undef_app _ _ s s3 E3). apply exec_undef_app_l. exact E.
Qed.

Theorem sim_op_undef c e s sp a o b v x y w tv ta tb :
  rel c e s sp -> NoDup (ids (c ++ [mkb v Ext I64])) ->
  lookup_int e a = Some x -> lookup_int e b = Some y -> eval_op o x y = OpUndef w ->
  xvt (c ++ [mkb v Ext I64]) (idn v) = Ok tv ->
  xvt (c ++ [mkb v Ext I64]) (idn a) = Ok ta -> xvt (c ++ [mkb v Ext I64]) (idn b) = Ok tb ->
  exists s', exec_undef (x_arith o tv ta tb) s = Some (w, s') /\ out s' = out s.
Proof.
  intros R ND LA LB EV TV TA TB.
  destruct (op_temps c e s sp a b v x y tv ta tb R ND LA LB TV TA TB) as (TV' & PRE & VA & VB).
  destruct o; cbn [eval_op x_arith] in *; try discriminate.
  - apply (div_rem_undef false s sp tv ta tb x y w (rel_frame R) PRE VA VB).
    destruct (y =? 0); [exact EV|]. destruct ((x =? min_int) && (y =? -1)); [exact EV|discriminate].
  - apply (div_rem_undef true s sp tv ta tb x y w (rel_frame R) PRE VA VB).
    destruct (y =? 0); [exact EV|]. destruct ((x =? min_int) && (y =? -1)); [exact EV|discriminate].
Qed.

(* IfC: the comparison, then the conditional jump *)
Theorem sim_compare2 c e s sp a b x y ta tb :
  rel c e s sp -> lookup_int e a = Some x -> lookup_int e b = Some y ->
  xvt c (idn a) = Ok ta -> xvt c (idn b) = Ok tb ->
  exists s', exec_straight im (compare ta tb) s = Some s' /\ flags s' = Some (x, y) /\
             rel c e s' sp /\ frame_eq s s' sp.
Proof.
  intros R LA LB TA TB.
  destruct (rel_operand CL c e s sp a x ta R LA TA) as (i & _ & Ti & Vi).
  destruct (rel_operand CL c e s sp b y tb R LB TB) as (j & _ & Tj & Vj).
  destruct (xtpos_ok _ _ _ Ti) as (L1 & N1 & _). destruct (xtpos_ok _ _ _ Tj) as (L2 & N2 & _).
  destruct (x86_compare_ok im s sp ta tb x y (rel_frame R) L1 L2 N1 N2 Vi Vj) as (s' & E & FL & K & _ & _ & F').
  exists s'. split; [exact E|]. split; [exact FL|]. split.
  - apply (rel_keep CL c e s s' sp R F').
    + apply (K (XR FREE)); [cbn; discriminate|discriminate].
    + intros k b0 n t _ _ Hk. destruct (xtpos_ok _ _ _ Hk) as (A & B & _). now apply K.
  - eapply exec_straight_local; [|exact (rel_frame R)|exact E]. apply local_compare.
Qed.
Theorem sim_compare1 c e s sp a x ta :
  rel c e s sp -> lookup_int e a = Some x -> xvt c (idn a) = Ok ta ->
  exists s', exec_straight im (compare_immediate ta 0) s = Some s' /\ flags s' = Some (x, 0) /\
             rel c e s' sp /\ frame_eq s s' sp.
Proof.
  intros R LA TA.
  destruct (rel_operand CL c e s sp a x ta R LA TA) as (i & _ & Ti & Vi).
  destruct (xtpos_ok _ _ _ Ti) as (L1 & N1 & _).
  exists (set_flags s (Some (x, 0))). split; [apply (x86_compare_zero_ok im s sp ta x (rel_frame R) L1 Vi)|].
  split; [reflexivity|]. split; [|apply frame_eq_set_flags].
  apply (rel_keep CL c e s _ sp R); [apply frame_ok_set_flags, (rel_frame R)|reflexivity|].
  intros k b0 n t _ _ _. apply lget_set_flags.
Qed.

(* the whole conditional inside an image: control reaches the first instruction of the branch the
   AxCut machine takes (the else branch follows the jump, the then branch follows the label) *)
Theorem sim_ifc c e s sp so a b x y types thenc elsec lc code lc' pc :
  rel c e s sp -> lookup_int e a = Some x ->
  match b with Some b => lookup_int e b | None => Some 0 end = Some y ->
  xcs types (IfC so a b thenc elsec) c lc = Ok (code, lc') ->
  code_at im pc code -> labels_at_nh im pc code ->
  exists c1 c2 lc2 c3 s',
    code = c1 ++ c2 ++ [LAB (iflabel lc)] ++ c3 /\
    xcs types elsec c (lc + 1)%N = Ok (c2, lc2) /\ xcs types thenc c lc2 = Ok (c3, lc') /\
    exec_to im pc s (if eval_cmp so x y then padd pc (List.length c1 + List.length c2 + 1)
                     else padd pc (List.length c1)) s' /\
    rel c e s' sp /\ frame_eq s s' sp.
Proof.
  intros R LA LB CS CA LBL.
  destruct (cs_ifc _ _ _ _ _ _ _ _ _ _ CS) as (ta & c1 & c2 & lc2 & c3 & TA & C1 & EL & TH & ->).
  exists c1, c2, lc2, c3.
  assert (PRE : exists pre s1, c1 = pre ++ [jcc so (iflabel lc)] /\ exec_straight im pre s = Some s1 /\
                               flags s1 = Some (x, y) /\ rel c e s1 sp /\ frame_eq s s1 sp).
  { destruct b as [b|].
    - destruct C1 as (tb & TB & ->).
      destruct (sim_compare2 c e s sp a b x y ta tb R LA LB TA TB) as (s1 & E & FL & R1 & FE). eauto 8.
    - inversion LB; subst y. destruct (sim_compare1 c e s sp a x ta R LA TA) as (s1 & E & FL & R1 & FE). eauto 8. }
  destruct PRE as (pre & s1 & -> & E & FL & R1 & FE).
  pose proof CA as CA'. rewrite <- app_assoc in CA'. apply code_at_app in CA' as [CApre CArest].
  pose proof (exec_straight_exec_to im pre pc s s1 CApre E) as X1.
  assert (CJ : PM.find (padd pc (List.length pre)) (code im) = Some (jcc so (iflabel lc))).
  { cbn [app] in CArest. apply code_at_cons in CArest as [C0 _]. exact C0. }
  assert (LL : nth_error ((pre ++ [jcc so (iflabel lc)]) ++ c2 ++ [LAB (iflabel lc)] ++ c3)
                         (List.length (pre ++ [jcc so (iflabel lc)]) + List.length c2) = Some (LAB (iflabel lc))).
  { rewrite nth_error_app2 by lia. rewrite nth_error_app2 by lia.
    replace (_ + _ - _ - _)%nat with O by lia. reflexivity. }
  exists s1. split; [reflexivity|]. split; [exact EL|]. split; [exact TH|]. split; [|split; [exact R1|exact FE]].
  pose proof (x86_jcc_step im so (iflabel lc) s1 x y FL) as ST.
  rewrite app_length. cbn [List.length].
  destruct (eval_cmp so x y).
  - rewrite (goto_label_at im pc _ _ _ s1 LBL LL eq_refl) in ST.
    eapply exec_to_trans; [exact X1|].
    eapply exec_jump; [exact CJ|exact ST|].
    eapply exec_next; [apply (code_at_nth im pc _ _ _ CA LL)|reflexivity|].
    rewrite <- padd_succ. rewrite app_length. cbn [List.length].
    replace (S (List.length pre + 1 + List.length c2)) with (List.length pre + 1 + List.length c2 + 1)%nat by lia.
    apply exec_refl.
  - eapply exec_to_trans; [exact X1|].
    eapply exec_next; [exact CJ|exact ST|]. rewrite <- padd_succ.
    replace (S (List.length pre)) with (List.length pre + 1)%nat by lia. apply exec_refl.
Qed.

(* Exit: the result reaches rax, then control goes to `cleanup` *)
Theorem sim_exit_mov c e s sp v z tv :
  rel c e s sp -> lookup_int e v = Some z -> xvt c (idn v) = Ok tv ->
  exists s', exec_straight im (x_mov (XR RETURN1) tv) s = Some s' /\ rget s' RETURN1 = Some z /\
             frame_ok s' sp /\ frame_eq s s' sp.
Proof.
  intros R LV TV.
  destruct (rel_operand CL c e s sp v z tv R LV TV) as (i & _ & Ti & Vi).
  destruct (xtpos_ok _ _ _ Ti) as (L1 & N1 & _).
  destruct (x86_mov_ok im s sp (XR RETURN1) tv (rel_frame R)) as (s' & E & V & P); auto; try (cbn; discriminate).
  exists s'. split; [exact E|]. split; [cbn [lget] in V; congruence|].
  eapply exec_straight_local; [|exact (rel_frame R)|exact E]. apply local_x_mov. reflexivity.
Qed.
End Sim.


(* in the integer fragment no reference count is touched *)
Lemma cwc_int tm c : forall lc,
  (forall b tg, In (b, tg) tm -> bchi b = Ext) -> code_weakening_contraction x86_backend tm c lc = Ok ([], lc).
Proof.
  induction tm as [|[b tg] tm IH]; intros lc H; cbn [code_weakening_contraction]; [reflexivity|].
  rewrite (H b tg (or_introl eq_refl)). apply IH. intros b' tg' Hin. apply (H b' tg'). now right.
Qed.
Lemma cwc_ctx_int c re lc : ctx_int c = true -> NoDup (ids c) ->
  code_weakening_contraction x86_backend (transpose re c) c lc = Ok ([], lc).
Proof.
  intros CI ND. apply cwc_int. intros b tg Hin.
  apply (In_transpose re c b tg (NoDup_map_inv _ _ ND)) in Hin as (Hin & _).
  apply In_nth_error in Hin as (i & Hi). apply (ctx_int_nth c i b CI Hi).
Qed.

(* the labels of the reference-count code are branch labels `lab<n>` *)
Definition nh_labels (cs : list xcode) : Prop :=
  Forall (fun c => match c with LAB l => is_hash_label l = false | _ => True end) cs.
Lemma nh_labels_app a b : nh_labels a -> nh_labels b -> nh_labels (a ++ b).
Proof. intros A B. apply Forall_app. split; assumption. Qed.
Lemma labels_at_of_nh im pc cs : nh_labels cs -> labels_at_nh im pc cs -> labels_at im pc cs.
Proof.
  intros NH LA j l Hj. apply LA; auto. unfold nh_labels in NH. rewrite Forall_forall in NH.
  exact (NH _ (nth_error_In _ _ Hj)).
Qed.
Lemma nh_lab n : is_hash_label (lab n) = false. Proof. reflexivity. Qed.
Ltac nh_tac :=
  repeat first [ apply Forall_nil | apply Forall_cons; [first [exact I | apply nh_lab | reflexivity]|]
               | apply nh_labels_app ].
Lemma nh_compare_immediate t i : nh_labels (compare_immediate t i).
Proof. destruct t; cbn; nh_tac. Qed.
Lemma nh_skip_if_zero t body lc : nh_labels body -> nh_labels (fst (skip_if_zero t body lc)).
Proof. intros H. unfold skip_if_zero. cbn [fst]. nh_tac; auto using nh_compare_immediate. Qed.
Lemma nh_if_zero_then_else r o tb eb lc : nh_labels tb -> nh_labels eb -> nh_labels (fst (if_zero_then_else r o tb eb lc)).
Proof. intros H1 H2. unfold if_zero_then_else. cbn [fst]. destruct o; nh_tac; auto. Qed.
Lemma nh_erase t lc : nh_labels (fst (x_erase_block t lc)).
Proof.
  unfold x_erase_block, erase_valid_object. destruct t as [r|p].
  - destruct (if_zero_then_else _ _ _ _ lc) as [c lc1] eqn:E. apply nh_skip_if_zero.
    replace c with (fst (if_zero_then_else r (Some REFERENCE_COUNT_OFFSET) [MOVS FREE r NEXT_ELEMENT_OFFSET; MOV FREE r] [ADDIM r REFERENCE_COUNT_OFFSET (-1)] lc)) by (now rewrite E).
    apply nh_if_zero_then_else; nh_tac.
  - destruct (if_zero_then_else _ _ _ _ lc) as [c lc1] eqn:E.
    destruct (skip_if_zero (XR TEMP) c lc1) as [c2 lc2] eqn:E2. cbn [fst].
    apply nh_labels_app; [nh_tac|]. replace c2 with (fst (skip_if_zero (XR TEMP) c lc1)) by (now rewrite E2).
    apply nh_skip_if_zero.
    replace c with (fst (if_zero_then_else TEMP (Some REFERENCE_COUNT_OFFSET) [MOVS FREE TEMP NEXT_ELEMENT_OFFSET; MOV FREE TEMP] [ADDIM TEMP REFERENCE_COUNT_OFFSET (-1)] lc)) by (now rewrite E).
    apply nh_if_zero_then_else; nh_tac.
Qed.
Lemma nh_share t n lc : nh_labels (fst (x_share_block_n t n lc)).
Proof. unfold x_share_block_n. destruct t; apply nh_skip_if_zero; nh_tac. Qed.
Lemma nh_emit_rc : forall ops lc, nh_labels (fst (emit_rc x86_backend ops lc)).
Proof.
  induction ops as [|o ops IH]; intros lc; cbn [emit_rc]; [constructor|].
  destruct (emit_rc_op x86_backend o lc) as [c1 lc1] eqn:E1. destruct (emit_rc x86_backend ops lc1) as [c2 lc2] eqn:E2.
  cbn [fst]. apply nh_labels_app.
  - replace c1 with (fst (emit_rc_op x86_backend o lc)) by (now rewrite E1).
    destruct o; cbn [emit_rc_op b_erase b_share_n x86_backend x86_backend_with]; [apply nh_erase|apply nh_share].
  - replace c2 with (fst (emit_rc x86_backend ops lc1)) by (now rewrite E2). apply IH.
Qed.

Section SimSubst.
Variable im : image.
Variable CL : Z -> ident -> list clause -> Prop.
Local Notation rel := (rel CL).

(* the temporaries of a source position and of a new position it is assigned to are defined and
   joined by an edge of the move graph, because the moves were emitted *)
Lemma subst_edge c re am n i bi j pj :
  NoDup (ids c) -> NoDup (new_ids re) ->
  connections x86_backend (transpose re c) c (map fst re) = Ok am ->
  nth_error c i = Some bi -> allowed n bi -> nth_error re j = Some pj -> idn (snd pj) = idn (bvar bi) ->
  exists ta tb, xtpos n i = Ok ta /\ xtpos n j = Ok tb /\ edge xtemp xeqb am ta tb.
Proof.
  intros NDc NDn CN Hbi AL Hre EQ.
  destruct (all_ok x86_backend x86_backend_ok c re am NDc NDn CN n i bi Hbi AL) as (a & ts & K & _).
  pose proof (connections_edges x86_backend x86_backend_ok c re am NDc NDn CN) as EDG.
  unfold op_kv in K. rewrite (vt_tpos x86_backend n c i bi NDc Hbi) in K.
  destruct (xtpos n i) as [ta|] eqn:TA; cbn [rbind] in K; [|discriminate].
  destruct (rmap _ (targets re bi)) as [ts0|] eqn:RM; cbn [rbind] in K; [|discriminate].
  apply rmap_Forall2 in RM.
  assert (In (idn (bvar (fst pj))) (targets re bi)) as I.
  { unfold targets. apply in_map_iff. exists pj. split; auto. apply filter_In. split.
    - eapply nth_error_In; eauto.
    - apply N.eqb_eq. congruence. }
  destruct (Forall2_In_l _ _ _ _ RM I) as (tb & _ & Vy). cbn beta in Vy.
  rewrite (vt_tpos_new x86_backend n re j pj NDn Hre) in Vy.
  exists ta, tb. split; [reflexivity|]. split; [exact Vy|]. apply EDG. exists i, j, bi, pj, n. repeat split; auto.
Qed.

(* Substitute, any mix of integer and closure variables: the reference-count code (one skipped
   erase / share per closure variable that is dropped / duplicated: the block pointer of a closure without
   captured variables is null) followed by the parallel moves leaves the machine's rearranged environment in
   the temporaries of the new context *)
Theorem sim_substitute c e s sp re vs e' c1 lc lc1 c2 pc :
  rel c e s sp -> NoDup (new_ids re) ->
  (forall q, In q re -> has c (snd q) (bchi (fst q)) (bty (fst q)) = true) ->
  lookups e (map snd re) = Some vs -> bind (map (fun r => bvar (fst r)) re) vs = Some e' ->
  code_weakening_contraction x86_backend (transpose re c) c lc = Ok (c1, lc1) ->
  code_exchange x86_backend (transpose re c) c (map fst re) = Ok c2 ->
  code_at im pc (c1 ++ c2) -> labels_at_nh im pc (c1 ++ c2) ->
  exists s', exec_to im pc s (padd pc (List.length (c1 ++ c2))) s' /\ rel (map fst re) e' s' sp /\ frame_eq s s' sp.
Proof.
  intros R NDn KIND LK BD WC CE CA LA.
  pose proof (rel_nodup R) as NDc. pose proof (rel_frame R) as F. pose proof (rel_length R) as LEN.
  apply labels_at_nh_app in LA as [LA1 _].
  assert (CN : exists am, connections x86_backend (transpose re c) c (map fst re) = Ok am).
  { unfold code_exchange in CE. destruct (connections x86_backend (transpose re c) c (map fst re)) as [am|]; [eauto|discriminate]. }
  destruct CN as (am & CN).
  (* every new variable has a source position of the same kind and type *)
  assert (SRC : forall j pj, nth_error re j = Some pj ->
            exists i bi, nth_error c i = Some bi /\ idn (bvar bi) = idn (snd pj) /\
                         bchi bi = bchi (fst pj) /\ bty bi = bty (fst pj)).
  { intros j pj Hj. specialize (KIND pj (nth_error_In _ _ Hj)). unfold has in KIND.
    destruct (lookup_b c (idn (snd pj))) as [bi|] eqn:LB; [|discriminate].
    apply lookup_b_Some in LB as [Hin Hid]. apply andb_true_iff in KIND as [K1 K2].
    apply chi_eqb_eq in K1. apply ty_eqb_eq in K2. apply In_nth_error in Hin as (i & Hi). eauto 8. }
  (* far fewer new variables than 2^31: each has a temporary *)
  assert (LR : Z.of_nat (List.length re) <= 2147483647).
  { destruct (Nat.le_gt_cases (List.length re) 1000) as [L|L]; [lia|]. exfalso.
    destruct (nth_error re 1000) as [pj|] eqn:Hj; [|apply nth_error_None in Hj; lia].
    destruct (SRC _ _ Hj) as (i & bi & Hi & Ei & _).
    destruct (subst_edge c re am Snd i bi 1000%nat pj NDc NDn CN Hi (or_introl eq_refl) Hj (eq_sym Ei)) as (_ & tb & _ & Tb & _).
    vm_compute in Tb. discriminate. }
  (* the closures of the fragment have no block: their pointers are null *)
  assert (NULL : forall i b t, nth_error c i = Some b -> is_obj b = true -> xtpos Fst i = Ok t -> lget s sp t = Some 0).
  { intros i b t Hnth Ho Ht.
    assert (Li : (i < List.length e)%nat) by (rewrite LEN; apply nth_error_Some; congruence).
    destruct (nth_error e i) as [[y v]|] eqn:He; [|apply nth_error_None in He; lia].
    destruct (rel_vals R i y v He) as (b' & Hb' & V). assert (b' = b) by congruence. subst b'.
    inversion V; subst.
    - unfold is_obj in Ho. rewrite H in Ho. discriminate.
    - congruence. }
  destruct (rel_free R) as (f & FR).
  assert (LA1' : labels_at im pc c1).
  { apply labels_at_of_nh; [|exact LA1].
    destruct (weakening_contraction_counts x86_backend c re lc c1 lc1 NDc WC) as (order & _ & _ & _ & ops & _ & EM).
    replace c1 with (fst (emit_rc x86_backend (List.concat ops) lc)) by (now rewrite <- EM). apply nh_emit_rc. }
  destruct (x86_substitute_core im pc c re lc c1 lc1 c2 s sp f NDc NDn LR WC CE CA LA1' F FR)
    as (s2 & f' & order & ptr & X & MOVE & PERM & ORD & FREE2 & HF & _ & _ & F2 & OUT & STK).
  { intros i b t Hb Ho Ht. exists 0. split; [exact (NULL i b t Hb Ho Ht)|now left]. }
  (* so no reference count is touched: heap and rbp are unchanged *)
  assert (ID : fold_left (fun hf ib => count_h (ptr (fst ib)) (count_targets re (snd ib)) hf) order (heap s, f) = (heap s, f)).
  { assert (Z0 : forall i b, In (i, b) order -> ptr i = 0).
    { intros i b Hin. destruct (ORD i b Hin) as (Hb & t & Ht & Hp).
      assert (Ho : is_obj b = true).
      { assert (In b (map snd order)) as Hb' by (apply in_map_iff; exists (i, b); auto).
        eapply Permutation.Permutation_in in Hb'; [|exact PERM]. apply filter_In in Hb'. tauto. }
      rewrite (NULL i b t Hb Ho Ht) in Hp. congruence. }
    clear -Z0. generalize (heap s, f). induction order as [|[i b] order IH]; intros hf; cbn [fold_left]; [reflexivity|].
    cbn [fst snd]. rewrite (Z0 i b (or_introl eq_refl)).
    replace (count_h 0 (count_targets re b) hf) with hf by (destruct (count_targets re b) as [|[|k]]; reflexivity).
    apply IH. intros i' b' H. apply (Z0 i' b'). now right. }
  rewrite ID in HF. injection HF as HP FQ. subst f'.
  exists s2. split; [exact X|]. split.
  - destruct R as [F0 Al Ro Fr Ids ND0 Vals]. split; auto.
    + eauto.
    + unfold env_ids. rewrite <- (map_map fst idn), (bind_ids _ _ _ BD). unfold ids. now rewrite !map_map.
    + now rewrite ids_new.
    + intros j x v Hj.
      destruct (bind_nth _ _ _ _ _ _ BD Hj) as (Hx & Hv).
      rewrite nth_error_map in Hx. destruct (nth_error re j) as [pj|] eqn:Hre; [|discriminate]. cbn in Hx. inversion Hx; subst x.
      exists (fst pj). split; [now rewrite nth_error_map, Hre|].
      destruct (lookups_nth e (map snd re) vs j (snd pj) LK) as (v' & Hv' & LV).
      { now rewrite nth_error_map, Hre. }
      assert (v' = v) by congruence. subst v'.
      unfold lookup_id in LV. destruct (lookup_nth e _ _ LV) as (i & y & Hi & Ey).
      destruct (Vals i y v Hi) as (bi & Hbi & V).
      destruct (SRC j pj Hre) as (i' & bi' & Hi' & Ei' & KC & KT).
      assert (i' = i).
      { destruct (env_ctx_nth c e i y v Ids Hi) as (b0 & Hb0 & Eb0).
        eapply (ids_nth_inj c i' i bi' b0); eauto. congruence. }
      subst i'. assert (bi' = bi) by congruence. subst bi'.
      assert (MV : forall n ta, allowed n bi -> xtpos n i = Ok ta -> exists tb, xtpos n j = Ok tb /\ lget s2 sp tb = lget s sp ta).
      { intros n ta AL Ta.
        destruct (subst_edge c re am n i bi j pj NDc NDn CN Hbi AL Hre (eq_sym Ei')) as (ta' & tb & _ & Tb & _).
        exists tb. split; [exact Tb|]. exact (MOVE i j bi pj n ta tb Hbi Hre (eq_sym Ei') AL Ta Tb). }
      inversion V; subst.
      * destruct (MV Snd t (or_introl eq_refl) H1) as (tb & Tb & Lb).
        eapply vrep_int; eauto; congruence.
      * assert (AL : forall n, allowed n bi) by (intros n; right; congruence).
        destruct (MV Fst t1 (AL Fst) H1) as (tb1 & Tb1 & Lb1). destruct (MV Snd t2 (AL Snd) H2) as (tb2 & Tb2 & Lb2).
        eapply vrep_clo; eauto; congruence.
  - split; [exact HP|split; [exact OUT|exact STK]].
Qed.
End SimSubst.

(* Call: relabelling by a context of the same kinds *)
Lemma vrep_kind CL s sp i b b' v : bchi b' = bchi b -> bty b' = bty b -> vrep CL s sp i b v -> vrep CL s sp i b' v.
Proof.
  intros K T V. destruct V as [b z t A B T0 L|b tn cls a t1 t2 A B T1 T2 L1 L2 C].
  - eapply vrep_int; eauto; congruence.
  - eapply vrep_clo; eauto; congruence.
Qed.
Lemma bind_rel CL c e st sp (c' : ctx) e' :
  rel CL c e st sp -> NoDup (ids c') -> sig_match c c' = true ->
  bind (vars c') (map snd e) = Some e' -> rel CL c' e' st sp.
Proof.
  intros R ND SM BD. pose proof (rel_length R) as LE. destruct R as [F Al Ro Fr Ids ND0 Vals]. split; auto.
  - unfold env_ids. rewrite <- (map_map fst idn), (bind_ids _ _ _ BD). unfold vars, ids. now rewrite map_map.
  - intros i x v Hi. destruct (bind_nth _ _ _ _ _ _ BD Hi) as (_ & Hv).
    rewrite nth_error_map in Hv. destruct (nth_error e i) as [[y w]|] eqn:He; [|discriminate]. cbn in Hv. inversion Hv; subst w.
    destruct (Vals i y v He) as (b & Hb & V). destruct (sig_match_nth c c' i b SM Hb) as (b' & Hb' & K & T).
    exists b'. split; [exact Hb'|]. apply (vrep_kind CL st sp i b b' v); [congruence|congruence|exact V].
Qed.
