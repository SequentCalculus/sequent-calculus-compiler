(* Heap statements, shared by the back ends: how a value of the heap-instrumented linear machine (Sem/AxHeap.v) is
   represented in heap WORDS (a function Z -> Z: the ISA states enter only through `hword s`), and its frame lemma.
   The two places where the back ends differ are parameters (Proof/X86HSimRel.v is the instance for x86-64):
     JL   the jump-table offset of entry k (x86-64: 5k, AArch64: 4k, `b_jump_length`), the data word of an object;
     INT  what the relation records about integers (AArch64: 64-bit values, because MOVZ/MOVK synthesis, SDIV/MSUB and
          the NZCV conditions are exact on 64-bit values only; x86-64 records nothing).
   Everything else is literally shared with x86-64: `is_blk`, `wblocks`, `waddrs` (Proof/X86HeapDefs.v), `slots_agree`,
   `P03`, `wblocks_reach`, `waddr_slot`, `obj_fields_words` (Proof/X86HFrame.v) are used under their qualified names. *)
From Coq Require Import List ZArith NArith String Bool Lia Permutation.
From SCC Require Import Base.Sexp Lang.AxSyn Sem.AxSem Sem.AxHeap Model.Backend.
From SCC Require Model.Heap Proof.HeapMore Proof.HeapTrace Proof.HeapRep Proof.X86Mem Proof.X86MemFrame Proof.X86MemStoreFull
     Proof.X86HeapDefs Proof.X86HFrame.
Import ListNotations.
Open Scope Z_scope.
Open Scope list_scope.

Notation is_blk := X86Mem.is_blk.
Notation wblocks := X86HeapDefs.wblocks.
Notation waddrs := X86HeapDefs.waddrs.
Notation slots_agree := X86HFrame.slots_agree.
Notation reach := HeapTrace.reach.
Notation wchain_congr := X86MemStoreFull.wchain_congr.

(* the typing context a captured environment stands for (names of the annotation, kinds and types of the values) *)
Definition ctx_of_env (ce : list (ident * value)) : ctx :=
  map (fun xv : ident * value => mkb (fst xv) (chi_of (snd xv)) (ty_of (snd xv))) ce.

Section HRep.
Variable types : list tydecl.
(* what the data word of a closure points to: (address, type name, clauses, captured context) *)
Variable CLO : Z -> ident -> list clause -> ctx -> Prop.
(* the jump-table offset of the k-th entry (`b_jump_length` of the back end) *)
Variable JL : N -> Z.
(* what is known of every integer (x86-64: nothing; AArch64: it is a 64-bit value) *)
Variable INT : Z -> Prop.

(* the fields of an object have the kinds and types its constructor declares *)
Definition same_kinds (fs : list value) (sg : ctx) : Prop :=
  Forall2 (fun f b => chi_of f = bchi b /\ ty_of f = bty b) fs sg.
Definition tag_word (tn tag : ident) (fs : list value) (a : Z) : Prop :=
  exists d k x, find (fun d => ident_eqb (tname d) tn) types = Some d /\
              xtor_position (txtors d) tag 0 = Ok k /\ a = JL k /\
              find (fun x => ident_eqb (xname x) tag) (txtors d) = Some x /\ same_kinds fs (xargs x).

Inductive xrep (w : Z -> Z) : value -> Z -> Z -> Prop :=
| xr_int z : INT z -> xrep w (VInt z) 0 z
| xr_obj tn tag fs q a : tag_word tn tag fs a -> xflds w fs q -> xrep w (VObj tn tag fs) q a
| xr_clo tn cls ce q a : CLO a tn cls (ctx_of_env ce) -> xflds w (map snd ce) q -> xrep w (VClo tn cls ce) q a
with xflds (w : Z -> Z) : list value -> Z -> Prop :=
| xf_nil : xflds w [] 0
| xf_cons fs q :
    fs <> [] ->
    Forall is_blk (wblocks (Heap.nlinks (List.length fs)) w q) ->
    (forall j, (j < List.length (waddrs (Heap.nlinks (List.length fs)) w q) - List.length fs)%nat ->
       w (nth j (waddrs (Heap.nlinks (List.length fs)) w q) 0) = 0) ->
    xreps w fs (skipn (List.length (waddrs (Heap.nlinks (List.length fs)) w q) - List.length fs)
                      (waddrs (Heap.nlinks (List.length fs)) w q)) ->
    xflds w fs q
with xreps (w : Z -> Z) : list value -> list Z -> Prop :=
| xs_nil : xreps w [] []
| xs_cons v vs a al : xrep w v (w a) (w (a + 8)) -> xreps w vs al -> xreps w (v :: vs) (a :: al).

Scheme xrep_ind3 := Induction for xrep Sort Prop
  with xflds_ind3 := Induction for xflds Sort Prop
  with xreps_ind3 := Induction for xreps Sort Prop.
Combined Scheme xrep_mutind from xrep_ind3, xflds_ind3, xreps_ind3.

Lemma xreps_length w vs al : xreps w vs al -> List.length al = List.length vs.
Proof. induction 1; cbn; auto. Qed.
Lemma xreps_nth w vs al : xreps w vs al -> forall i v, nth_error vs i = Some v ->
  exists a, nth_error al i = Some a /\ xrep w v (w a) (w (a + 8)).
Proof.
  induction 1 as [|v0 vs a al H0 H IH]; intros i v Hi; [destruct i; discriminate|].
  destruct i as [|i]; cbn [nth_error] in *; [inversion Hi; subst; eauto|eauto].
Qed.
Lemma xreps_intro w : forall vs al, List.length al = List.length vs ->
  (forall i v a, nth_error vs i = Some v -> nth_error al i = Some a -> xrep w v (w a) (w (a + 8))) -> xreps w vs al.
Proof.
  induction vs as [|v vs IH]; intros [|a al] L H; cbn in L; try discriminate; constructor.
  - apply (H O); reflexivity.
  - apply IH; [lia|]. intros i v' a' Hv Ha. apply (H (S i)); assumption.
Qed.

(* the chain functions read non-header words of blocks only *)
Lemma wchain_ext w w' : (forall a, ~ is_blk a -> w' a = w a) ->
  forall k q, Forall is_blk (wblocks k w q) -> wblocks k w' q = wblocks k w q /\ waddrs k w' q = waddrs k w q.
Proof.
  intros E. induction k as [|k IH]; intros q FB; cbn [wblocks waddrs]; [auto|].
  cbn [wblocks] in FB. inversion FB as [|? ? Hq FB']; subst.
  rewrite (E (q + 48)) by (apply X86MemFrame.not_blk_off; [exact Hq|lia]).
  destruct (IH _ FB') as [A B]. now rewrite A, B.
Qed.
(* every slot address of a chain is a field slot of one of its blocks *)
Lemma waddrs_in w : forall k q a, In a (waddrs k w q) ->
  exists b, In b (wblocks k w q) /\ (a = b + 16 \/ a = b + 32 \/ a = b + 48).
Proof.
  induction k as [|k IH]; intros q a Ha; cbn [waddrs wblocks app In] in *.
  - exists q. split; [now left|]. destruct Ha as [<-|[<-|[<-|[]]]]; auto.
  - destruct Ha as [<-|[<-|Ha]]; [exists q; split; [now left|auto]|exists q; split; [now left|auto]|].
    destruct (IH _ _ Ha) as (b & Hb & Hab). exists b. split; [now right|exact Hab].
Qed.
Lemma in_skipn_in {X} (l : list X) : forall n x, In x (skipn n l) -> In x l.
Proof. induction l as [|y l IH]; intros [|n] x H; cbn in *; auto. right. eauto. Qed.
Lemma waddrs_not_blk w k q a : Forall is_blk (wblocks k w q) -> In a (waddrs k w q) -> ~ is_blk a /\ ~ is_blk (a + 8).
Proof.
  intros FB Ha. destruct (waddrs_in w k q a Ha) as (b & Hb & Hab). rewrite Forall_forall in FB. specialize (FB b Hb).
  destruct Hab as [->|[->| ->]]; split; try (apply X86MemFrame.not_blk_off; [exact FB|lia]);
    rewrite <- Z.add_assoc; apply X86MemFrame.not_blk_off; try exact FB; lia.
Qed.

(* a representation survives every change of block headers *)
Lemma xrep_ext_mut w w' : (forall a, ~ is_blk a -> w' a = w a) ->
  (forall v q a, xrep w v q a -> xrep w' v q a) /\
  (forall fs q, xflds w fs q -> xflds w' fs q) /\
  (forall vs al, xreps w vs al -> (forall a, In a al -> ~ is_blk a /\ ~ is_blk (a + 8)) -> xreps w' vs al).
Proof.
  intros E. apply xrep_mutind.
  - intros z Hz. now constructor.
  - intros tn tag fs q a T _ IH. now constructor.
  - intros tn cls ce q a C _ IH. now constructor.
  - constructor.
  - intros fs q NE FB Z0 XS IH.
    destruct (wchain_ext w w' E _ _ FB) as [EB EA].
    apply xf_cons; rewrite ?EB, ?EA; auto.
    + intros j Hj. rewrite E; [now apply Z0|].
      apply (waddrs_not_blk w (Heap.nlinks (List.length fs)) q); [exact FB|]. apply nth_In. lia.
    + apply IH. intros a Ha. apply (waddrs_not_blk w (Heap.nlinks (List.length fs)) q); [exact FB|].
      eapply in_skipn_in; eauto.
  - intros _. constructor.
  - intros v vs a al X IH1 XS IH2 NB. constructor.
    + destruct (NB a (or_introl eq_refl)) as [N1 N2]. rewrite (E a N1), (E (a + 8) N2). exact IH1.
    + apply IH2. intros a' Ha'. apply NB. now right.
Qed.
Lemma xrep_ext w w' v q a : (forall a, ~ is_blk a -> w' a = w a) -> xrep w v q a -> xrep w' v q a.
Proof. intros E. apply (proj1 (xrep_ext_mut w w' E)). Qed.
Lemma xflds_ext w w' fs q : (forall a, ~ is_blk a -> w' a = w a) -> xflds w fs q -> xflds w' fs q.
Proof. intros E. apply (proj1 (proj2 (xrep_ext_mut w w' E))). Qed.

(* the pointer word of a represented value is null or a block of the heap region *)
Lemma xflds_ptr w fs q : xflds w fs q -> q = 0 \/ is_blk q.
Proof.
  destruct 1 as [|fs q NE FB _ _]; [now left|right].
  destruct (Heap.nlinks (List.length fs)); cbn [wblocks] in FB; inversion FB; assumption.
Qed.
Lemma xrep_ptr w v q a : xrep w v q a -> q = 0 \/ is_blk q.
Proof. destruct 1; [now left|eapply xflds_ptr; eauto|eapply xflds_ptr; eauto]. Qed.
Lemma xflds_nil_inv w q : xflds w [] q -> q = 0.
Proof. inversion 1; [reflexivity|congruence]. Qed.
Lemma xflds_cons_inv w fs q : xflds w fs q -> fs <> [] ->
  is_blk q /\ Forall is_blk (wblocks (Heap.nlinks (List.length fs)) w q) /\
  (forall j, (j < List.length (waddrs (Heap.nlinks (List.length fs)) w q) - List.length fs)%nat ->
     w (nth j (waddrs (Heap.nlinks (List.length fs)) w q) 0) = 0) /\
  xreps w fs (skipn (List.length (waddrs (Heap.nlinks (List.length fs)) w q) - List.length fs)
                    (waddrs (Heap.nlinks (List.length fs)) w q)).
Proof.
  intros H NE. destruct H as [|fs q _ FB Z0 XS]; [congruence|]. split; [|auto].
  destruct (Heap.nlinks (List.length fs)); cbn [wblocks] in FB; inversion FB; assumption.
Qed.


Section Frame.
Variable hs : Heap.st.
Variables w w' : Z -> Z.
Hypothesis AG : slots_agree (Heap.m hs) w.

Definition kept (q : Z) : Prop := forall b, reach (Heap.m hs) [q] b -> forall i, 0 < i < 64 -> w' (b + i) = w (b + i).

Lemma xrep_frame_mut :
  (forall v q a, xrep w v q a -> kept q -> xrep w' v q a) /\
  (forall fs q, xflds w fs q -> kept q -> xflds w' fs q) /\
  (forall vs al, xreps w vs al ->
     (forall a, In a al -> w' a = w a /\ w' (a + 8) = w (a + 8) /\ kept (w a)) -> xreps w' vs al).
Proof.
  apply xrep_mutind.
  - intros z Hz _. now constructor.
  - intros tn tag fs q a T _ IH H. constructor; auto.
  - intros tn cls ce q a C _ IH H. constructor; auto.
  - intros _. constructor.
  - intros fs q NE FB Z0 XS IH KP.
    set (k := Heap.nlinks (List.length fs)) in *.
    assert (RB : forall b, In b (wblocks k w q) -> reach (Heap.m hs) [q] b) by (apply (X86HFrame.wblocks_reach hs w AG); exact FB).
    assert (EW : forall b, In b (wblocks k w q) -> forall i, 0 < i < 64 -> w' (b + i) = w (b + i)).
    { intros b Hb i Hi. apply KP; [apply RB; exact Hb|exact Hi]. }
    destruct (wchain_congr w w' k q) as [EB EA].
    { intros b Hb. apply EW; [exact Hb|lia]. }
    assert (EAD : forall a, In a (waddrs k w q) -> w' a = w a /\ w' (a + 8) = w (a + 8)).
    { intros a Ha. destruct (waddrs_in w k q a Ha) as (b & Hb & Hab).
      destruct Hab as [->|[->| ->]]; rewrite <- ?Z.add_assoc; split; apply EW; try exact Hb; lia. }
    apply xf_cons; fold k; rewrite ?EB, ?EA; auto.
    + intros j Hj. assert (Hj' : (j < List.length (waddrs k w q))%nat) by lia.
      rewrite (proj1 (EAD _ (nth_In _ 0 Hj'))). now apply Z0.
    + apply IH. intros a Ha. pose proof (in_skipn_in _ _ _ Ha) as Ha'.
      destruct (EAD a Ha') as [E1 E2]. split; [exact E1|]. split; [exact E2|].
      intros b Hb. apply KP.
      assert (Hw0 : w a <> 0).
      { intros E0. rewrite E0 in Hb. clear -Hb. remember [0] as src eqn:Es. induction Hb as [b Hb Hb0|x b Hx IH Hin Hb0]; subst.
        - destruct Hb as [<-|[]]. congruence.
        - auto. }
      destruct (X86HFrame.waddr_slot hs w AG k q a FB Ha' Hw0) as (b0 & Hb0 & Hin).
      eapply HeapRep.reach_trans; [|exact Hb]. intros r [<-|[]] _.
      eapply HeapTrace.reach_slot; [apply RB; exact Hb0|exact Hin|exact Hw0].
  - intros _. constructor.
  - intros v vs a al X IH1 XS IH2 H. destruct (H a (or_introl eq_refl)) as (E1 & E2 & KP).
    constructor.
    + rewrite E1, E2. apply IH1. exact KP.
    + apply IH2. intros a' Ha'. apply H. now right.
Qed.
Lemma xrep_frame v q a : xrep w v q a -> kept q -> xrep w' v q a.
Proof. apply (proj1 xrep_frame_mut). Qed.
End Frame.
End HRep.

