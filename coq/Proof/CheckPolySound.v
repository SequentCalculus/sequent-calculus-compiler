(* C15, soundness of the model of the type checker with respect to the declarative typing rules for
   programs WITH type parameters and type arguments (term level).  Hypotheses: identifier-like
   names ([term_names_ok], [poly_world]); no hypothesis on the well-formedness of declarations is
   needed at this level. *)
From Coq Require Import List ZArith String Bool Permutation Lia.
From SCC Require Import Base.Sexp Lang.SynUtil Lang.FunSyn Model.Check Sem.FunTyping
  Proof.FunInd Proof.FunEq Proof.CheckAnn Proof.TypingReject Proof.CheckBuild Proof.CheckMono Proof.CheckMonoSound
  Proof.PrintInj Proof.CheckPoly Proof.CheckInstBase.
From SCC Require Import Sem.FunClosed.
Import ListNotations.
Open Scope list_scope.

Lemma terms_names_ok_eq : forall l,
  (fix go (l : list fterm) : bool := match l with [] => true | a :: r => term_names_ok a && go r end) l = terms_names_ok l.
Proof. induction l; simpl; [reflexivity|]. rewrite IHl. reflexivity. Qed.
Lemma clauses_names_ok_eq : forall l,
  (fix go (l : list fclause) : bool :=
     match l with [] => true | FClause _ x _ _ b :: r => name_ok x && term_names_ok b && go r end) l = clauses_names_ok l.
Proof. induction l as [|[? ? ? ? ?] r IH]; simpl; [reflexivity|]. rewrite IH. reflexivity. Qed.

Lemma inst_ctx_nil : forall c, inst_ctx [] [] c = c.
Proof.
  induction c as [|[v ch t] r IH]; simpl; [reflexivity|]. unfold inst_binding. simpl. rewrite inst_nil, IH. reflexivity.
Qed.
Lemma extend_sig_inst : forall xs sg G ps targs,
  extend_sig G ps targs xs sg = env_of_ctx G (zip_names xs (inst_ctx ps targs sg)).
Proof.
  induction xs as [|x xr IH]; intros sg G ps targs; simpl; [reflexivity|].
  destruct sg as [|b br]; simpl; [reflexivity|]. apply IH.
Qed.
Lemma ctx_names_ok_in : forall c b, ctx_names_ok c = true -> In b c -> ty_names_ok (fbty b) = true.
Proof. intros c b H Hin. unfold ctx_names_ok in H. rewrite forallb_forall in H. auto. Qed.
Lemma ctx_names_ok_app : forall a b, ctx_names_ok a = true -> ctx_names_ok b = true -> ctx_names_ok (a ++ b) = true.
Proof. intros a b Ha Hb. unfold ctx_names_ok in *. rewrite forallb_app, Ha, Hb. reflexivity. Qed.
Lemma ctx_names_ok_zip : forall xs sg, ctx_names_ok sg = true -> ctx_names_ok (zip_names xs sg) = true.
Proof.
  induction xs as [|x r IH]; intros sg H; simpl; [reflexivity|]. destruct sg as [|b br]; [reflexivity|].
  simpl in *. apply andb_true_iff in H. destruct H as [H1 H2]. rewrite H1. simpl. auto.
Qed.
Lemma inst_ctx_length : forall ps targs c, List.length (inst_ctx ps targs c) = List.length c.
Proof. intros. unfold inst_ctx. apply map_length. Qed.

Lemma ty_names_ok_decl_inv : forall n a, ty_names_ok (FDecl n a) = true -> name_ok n = true /\ tys_names_ok a = true.
Proof. intros n a H. rewrite ty_names_ok_decl in H. apply andb_true_iff in H. exact H. Qed.

Section PSound.
  Variable ts : list tdecl.
  Variable fs : list fdef.
  Hypothesis W : poly_world ts fs.

  Notation pinv := (pinv ts).
  Notation targs_ok := (targs_ok ts).

  Lemma targs_ok_names : forall td targs, targs_ok td targs -> tys_names_ok targs = true.
  Proof. intros td targs [_ H]. eapply wf_tys_names_ok; eassumption. Qed.
  Lemma decl_ty_names_ok : forall td targs, In td ts -> tys_names_ok targs = true ->
    ty_names_ok (FDecl (td_name td) targs) = true.
  Proof. intros td targs Htd Nt. rewrite ty_names_ok_decl, (PW_tnames _ _ W td Htd). exact Nt. Qed.

  Lemma ctor_instance_sound : forall st x targs types,
    pinv st -> name_ok x = true -> tys_names_ok targs = true ->
    aget (st_ctors st) (x ++ print_targs targs)%string = Some types ->
    exists td s, In td ts /\ td_pol td = FData /\ In s (td_xtors td) /\ xs_name s = x /\ targs_ok td targs
                 /\ types = inst_ctx (td_params td) targs (xs_args s).
  Proof.
    intros st x targs types I Nx Nt H.
    destruct (pi_ctors _ _ I _ _ H) as [td [targs' [s [Htd [Hp [Hs [Ek [-> Hok]]]]]]]].
    destruct (instance_name_inj _ _ _ _ (name_ok_no_delim _ Nx) (name_ok_no_delim _ (PW_xnames _ _ W td s Htd Hs))
                Nt (targs_ok_names _ _ Hok) Ek) as [-> <-].
    exists td, s. splits; auto. unfold sub_of. destruct Hok as [Hl _].
    apply subst_ctx_inst; [apply (PW_params _ _ W); assumption|assumption].
  Qed.
  Lemma dtor_instance_sound : forall st x targs types ret,
    pinv st -> name_ok x = true -> tys_names_ok targs = true ->
    aget (st_dtors st) (x ++ print_targs targs)%string = Some (types, ret) ->
    exists td s r0, In td ts /\ td_pol td = FCodata /\ In s (td_xtors td) /\ xs_name s = x /\ targs_ok td targs
                 /\ xs_ret s = Some r0 /\ types = inst_ctx (td_params td) targs (xs_args s)
                 /\ ret = inst (td_params td) targs r0.
  Proof.
    intros st x targs types ret I Nx Nt H.
    destruct (pi_dtors _ _ I _ _ _ H) as [td [targs' [s [r0 [Htd [Hp [Hs [Hr [Ek [-> [-> Hok]]]]]]]]]]].
    destruct (instance_name_inj _ _ _ _ (name_ok_no_delim _ Nx) (name_ok_no_delim _ (PW_xnames _ _ W td s Htd Hs))
                Nt (targs_ok_names _ _ Hok) Ek) as [-> <-].
    exists td, s, r0. unfold sub_of. destruct Hok as [Hl Hw].
    splits; auto; try (split; assumption).
    - apply subst_ctx_inst; [apply (PW_params _ _ W); assumption|assumption].
    - apply subst_inst; [apply (PW_params _ _ W); assumption|assumption].
  Qed.

  Lemma xtor_of_name : forall td x, In x (map xs_name (td_xtors td)) -> exists s, In s (td_xtors td) /\ xs_name s = x.
  Proof. intros td x H. apply in_map_iff in H. destruct H as [s [? ?]]. eauto. Qed.

  Lemma lookup_ty_for_xtor_sound : forall st pol x targs ty xs,
    pinv st -> name_ok x = true -> tys_names_ok targs = true ->
    lookup_ty_for_xtor pol st (x ++ print_targs targs)%string = Some (ty, xs) ->
    exists td, In td ts /\ td_pol td = pol /\ ty = FDecl (td_name td) targs /\ xs = map xs_name (td_xtors td)
               /\ In x xs /\ targs_ok td targs /\ has_inst_p st ty.
  Proof.
    intros st pol x targs ty xs I Nx Nt. unfold lookup_ty_for_xtor.
    assert (Hall : forall k v, In (k, v) (st_types st) -> aget (st_types st) k = Some v).
    { intros. apply In_aget; [apply (pi_nodup _ _ I)|assumption]. }
    (* induction over the list that is scanned; [Hall] keeps lookups in the whole table available *)
    revert Hall. generalize (st_types st) at 1 3. intros l.
    induction l as [|[name [[p targs'] xtors]] r IH]; intros Hall H; simpl in H; [discriminate|].
    destruct (fpol_eqb p pol && xtor_matches (print_targs targs') (x ++ print_targs targs)%string xtors) eqn:Ec.
    - inversion H; subst. clear H. apply andb_true_iff in Ec. destruct Ec as [Ep Ex]. apply fpol_eqb_eq in Ep. subst p.
      pose proof (Hall name _ (or_introl eq_refl)) as Hg.
      destruct (pi_types _ _ I _ _ _ _ Hg) as [td [Htd [-> [Hp [-> Hok]]]]].
      unfold xtor_matches in Ex. apply existsb_exists in Ex. destruct Ex as [y [Hy Ey]].
      apply String.eqb_eq in Ey. destruct (xtor_of_name _ _ Hy) as [s [Hs Hn]].
      destruct (instance_name_inj _ _ _ _ (name_ok_no_delim _ (PW_xnames _ _ W td s Htd Hs)) (name_ok_no_delim _ Nx)
                  (targs_ok_names _ _ Hok) Nt ltac:(rewrite Hn; exact Ey)) as [Hyx ->].
      exists td. rewrite str_remove_instance_name by (apply name_ok_no_delim; apply (PW_tnames _ _ W); assumption).
      splits; auto; [rewrite <- Hyx, Hn; assumption|].
      simpl. unfold ahas. rewrite Hg. reflexivity.
    - apply IH; [|assumption]. intros. apply Hall. right. assumption.
  Qed.

  Lemma owner_of_names : forall td td' x, In td ts -> In td' ts -> td_pol td = td_pol td' ->
    In x (map xs_name (td_xtors td)) -> In x (map xs_name (td_xtors td')) -> td = td'.
  Proof.
    intros td td' x Htd Htd' Hp Hx Hx'.
    destruct (xtor_of_name _ _ Hx) as [s [Hs Hn]]. destruct (xtor_of_name _ _ Hx') as [s' [Hs' Hn']].
    eapply (xtor_owner_unique ts fs W td td' s s'); eauto. congruence.
  Qed.

  Definition psound_at (t : fterm) : Prop :=
    forall eager st ctx T t' st',
      term_names_ok t = true -> ctx_names_ok ctx = true -> ty_names_ok T = true -> tables ts fs st -> pinv st ->
      check_term_gen eager t st ctx T = COk (t', st') ->
      chk ts fs (E ctx) t T = true /\ pinv st' /\ same_templates st st' /\ grows st st'
      /\ term_closed (ikeys st') t' = true.

  Lemma ann_check_psound : forall (a : option fty) found st st',
    oty_names_ok a = true -> ty_names_ok found = true -> tables ts fs st -> pinv st ->
    match a with Some t => check_equality st t found | None => COk st end = COk st' ->
    ann_ok a found = true /\ pinv st' /\ same_templates st st' /\ grows st st'.
  Proof.
    intros a found st st' Ha Hf T I H. destruct a as [t|].
    - destruct (check_equality_sound ts fs W t found st st' Ha Hf T I H) as [-> [_ [I' [S [G _]]]]].
      simpl. rewrite fty_eqb_refl. auto.
    - inversion H; subst. simpl. auto using same_templates_refl, grows_refl.
  Qed.

  Lemma check_args_with_psound : forall args, Forall psound_at args ->
    forall eager ps targs sg st ctx args' st',
      terms_names_ok args = true -> ctx_names_ok ctx = true -> ctx_names_ok sg = true -> tys_names_ok targs = true ->
      tables ts fs st -> pinv st ->
      check_args_with (check_term_gen eager) args (inst_ctx ps targs sg) st ctx = COk (args', st') ->
      List.length args = List.length sg ->
      chk_args_with (chk ts fs) (E ctx) ps targs args sg = true /\ pinv st' /\ same_templates st st' /\ grows st st'
      /\ terms_closed (ikeys st') args' = true.
  Proof.
    intros args HF. induction HF as [|a ar Ha _ IH]; intros eager ps targs sg st ctx args' st' Hm Hc Ht Nt T I H Hlen.
    - destruct sg; [|discriminate]. simpl in H. inversion H; subst.
      simpl. auto 10 using same_templates_refl, grows_refl.
    - destruct sg as [|b br]; [discriminate|]. simpl in Hlen. simpl in Hm, Ht.
      apply andb_true_iff in Hm. destruct Hm as [Hma Hmr]. apply andb_true_iff in Ht. destruct Ht as [Htb Htr].
      assert (Nb : ty_names_ok (inst ps targs (fbty b)) = true) by (apply inst_names_ok; assumption).
      apply run_args_cons in H. simpl in H. simpl chk_args_with.
      destruct (fbchi b) eqn:Ech.
      + (* producer argument *)
        destruct H as (st1 & a' & st2 & ar' & H1 & H2 & H3 & ->).
        destruct (ty_check_sound ts fs W _ _ _ Nb T I H1) as [_ [I1 [S1 [G1 _]]]].
        destruct (Ha eager st1 ctx _ a' st2 Hma Hc Nb (tables_same _ _ _ _ T S1) I1 H2) as [Hk [I2 [S2 [G2 C2]]]].
        assert (S12 : same_templates st st2) by frame.
        destruct (IH eager ps targs br st2 ctx ar' st' Hmr Hc Htr Nt (tables_same _ _ _ _ T S12) I2 H3) as [Hkr [I3 [S3 [G3 C3]]]]; [lia|].
        rewrite Hk, Hkr. splits; frame.
        simpl. rewrite (term_closed_mono _ _ (grows_names_le _ _ G3) _ C2). exact C3.
      + (* consumer argument: a covariable *)
        destruct H as (v & ann & chi & found & st1 & st2 & ar' & -> & Hchi & Hl & H1 & H2 & H3 & ->).
        destruct (lookup_covar_E _ _ _ Hl) as [HE [b0 [Hb0 Hbt]]].
        assert (Hmf : ty_names_ok found = true) by (subst found; apply (ctx_names_ok_in ctx); assumption).
        destruct (ann_check_psound ann found st st1 Hma Hmf T I H1) as [Hann [I1 [S1 G1]]].
        destruct (check_equality_sound ts fs W _ _ _ _ Nb Hmf (tables_same _ _ _ _ T S1) I1 H2) as [Heq [_ [I2 [S2 [G2 Hi2]]]]].
        assert (S12 : same_templates st st2) by frame.
        destruct (IH eager ps targs br st2 ctx ar' st' Hmr Hc Htr Nt (tables_same _ _ _ _ T S12) I2 H3) as [Hkr [I3 [S3 [G3 C3]]]]; [lia|].
        unfold is_cns. rewrite Heq, HE, fty_eqb_refl, Hkr, Hann, Hchi.
        splits; frame. simpl. rewrite C3, andb_true_r. rewrite <- Heq.
        eapply ty_declared_mono; [apply (grows_names_le _ _ G3)|]. apply has_inst_declared. exact Hi2.
  Qed.

  Lemma check_args_psound : forall args, Forall psound_at args ->
    forall eager ps targs sg st ctx args' st',
      terms_names_ok args = true -> ctx_names_ok ctx = true -> ctx_names_ok sg = true -> tys_names_ok targs = true ->
      tables ts fs st -> pinv st ->
      check_args (check_term_gen eager) args (inst_ctx ps targs sg) st ctx = COk (args', st') ->
      chk_args_with (chk ts fs) (E ctx) ps targs args sg = true /\ pinv st' /\ same_templates st st' /\ grows st st'
      /\ terms_closed (ikeys st') args' = true.
  Proof.
    intros args HF eager ps targs sg st ctx args' st' Hm Hc Ht Nt T I H. apply run_args in H. destruct H as [El H].
    rewrite inst_ctx_length in El. eapply check_args_with_psound; eauto.
  Qed.

  Definition pc_psound (pc : pclause) : Prop :=
    forall st ctx T t' st',
      ctx_names_ok ctx = true -> ty_names_ok T = true -> tables ts fs st -> pinv st ->
      pc_chk pc st ctx T = COk (t', st') ->
      chk ts fs (E ctx) (pc_body pc) T = true /\ pinv st' /\ same_templates st st' /\ grows st st'
      /\ term_closed (ikeys st') t' = true.

  Lemma check_clauses_psound : forall (is_case : bool) T td targs xtors pcls st ctx cls' leftover st',
    Forall pc_psound pcls -> ctx_names_ok ctx = true -> tables ts fs st -> pinv st ->
    In td ts -> targs_ok td targs -> (forall x, In x xtors -> In x (map xs_name (td_xtors td))) ->
    td_pol td = (if is_case then FData else FCodata) -> (is_case = true -> ty_names_ok T = true) ->
    check_clauses is_case (print_targs targs) T xtors pcls st ctx = COk (cls', leftover, st') ->
    exists used, Permutation (used ++ leftover) pcls /\ map pc_xtor used = xtors
      /\ Forall (fun pc => clause_ok ts fs (E ctx) td targs (if is_case then Some T else None) (clause_of pc) = true) used
      /\ pinv st' /\ same_templates st st' /\ grows st st' /\ clauses_closed (ikeys st') cls' = true.
  Proof.
    intros is_case T td targs xtors. induction xtors as [|x xr IH];
      intros pcls st ctx cls' leftover st' HF Hc Tb I Htd Hok Hxs Hpol HT H.
    - simpl in H. inversion H; subst. exists []. simpl.
      splits; auto using same_templates_refl, grows_refl.
    - apply run_clauses_cons in H.
      destruct H as (cl & pcls' & sg & bty & body' & st1 & rest & Hx & Hperm & Hsig & Hnd & Elen & Hbody & Hrest & ->).
      assert (HF' : Forall pc_psound (cl :: pcls')).
      { eapply Permutation_Forall; [apply Permutation_sym; eassumption|assumption]. }
      inversion HF' as [|? ? Hcl HFr]; subst x.
      assert (Hxin : In (pc_xtor cl) (map xs_name (td_xtors td))) by (apply Hxs; left; reflexivity).
      destruct (xtor_of_name _ _ Hxin) as [s [Hs Hsn]].
      pose proof (PW_xnames _ _ W td s Htd Hs) as Nx. rewrite Hsn in Nx.
      pose proof (targs_ok_names _ _ Hok) as Nt.
      destruct (PW_sigs _ _ W td s Htd Hs) as [Nsg Nret].
      assert (Hsg : sg = inst_ctx (td_params td) targs (xs_args s)
                    /\ (if is_case then bty = T else exists r0, xs_ret s = Some r0 /\ bty = inst (td_params td) targs r0)).
      { destruct is_case.
        - destruct Hsig as [Eg ->].
          destruct (ctor_instance_sound _ _ _ _ I Nx Nt Eg) as [td' [s' [Htd' [Hp' [Hs' [Hn' [_ ->]]]]]]].
          destruct (xtor_owner_unique ts fs W td td' s s' Htd Htd' ltac:(congruence) Hs Hs' ltac:(congruence)) as [<- <-].
          auto.
        - destruct (dtor_instance_sound _ _ _ _ _ I Nx Nt Hsig) as [td' [s' [r0 [Htd' [Hp' [Hs' [Hn' [_ [Hr [-> ->]]]]]]]]]].
          destruct (xtor_owner_unique ts fs W td td' s s' Htd Htd' ltac:(congruence) Hs Hs' ltac:(congruence)) as [<- <-].
          eauto. }
      destruct Hsg as [-> Hbty]. rewrite inst_ctx_length in Elen.
      assert (Hmb : ty_names_ok bty = true).
      { destruct is_case; [subst; auto|]. destruct Hbty as [r0 [Hr ->]]. rewrite Hr in Nret. apply inst_names_ok; assumption. }
      assert (Hmc : ctx_names_ok (ctx ++ zip_names (pc_names cl) (inst_ctx (td_params td) targs (xs_args s))) = true).
      { apply ctx_names_ok_app; [assumption|]. apply ctx_names_ok_zip. apply inst_ctx_names_ok; assumption. }
      destruct (Hcl st _ bty body' st1 Hmc Hmb Tb I Hbody) as [Hk [I1 [S1 [G1 C1]]]].
      destruct (IH pcls' st1 ctx rest leftover st' HFr Hc (tables_same _ _ _ _ Tb S1) I1 Htd Hok) as [used [Hp [Hmap [Hall [I2 [S2 [G2 C2]]]]]]]; auto.
      { intros y Hy. apply Hxs. right. assumption. }
      exists (cl :: used). splits.
      + simpl. eapply perm_trans; [apply perm_skip; eassumption|assumption].
      + simpl. rewrite Hmap. reflexivity.
      + constructor; [|exact Hall].
        unfold clause_of, clause_ok. rewrite <- Hsn, (find_xsig_of_in ts fs W td s Htd Hs), (names_no_dups_ok _ Hnd), Elen, PeanoNat.Nat.eqb_refl. simpl.
        rewrite extend_sig_inst.
        unfold E in Hk. rewrite env_of_ctx_app in Hk.
        destruct is_case; [subst bty; exact Hk|]. destruct Hbty as [r0 [Hr ->]]. rewrite Hr. exact Hk.
      + assumption.
      + frame.
      + frame.
      + simpl. rewrite (term_closed_mono _ _ (grows_names_le _ _ G2) _ C1). exact C2.
  Qed.

  Lemma prep_clauses_psound : forall eager cls,
    Forall (fun c => psound_at (clause_body c)) cls -> clauses_names_ok cls = true ->
    Forall pc_psound (prep_clauses (check_term_gen eager) cls).
  Proof.
    intros eager cls HF. induction HF as [|[p x ns c b] r Hc _ IH]; intros Hm; simpl; constructor.
    - simpl in Hm. apply andb_true_iff in Hm. destruct Hm as [Hb _].
      unfold clause_names_ok in Hb. apply andb_true_iff in Hb. destruct Hb as [_ Hb].
      unfold pc_psound. simpl. intros. eapply Hc; eassumption.
    - apply IH. simpl in Hm. apply andb_true_iff in Hm. tauto.
  Qed.

  Lemma clauses_psound_result : forall eager (is_case : bool) T td targs cls st ctx cls' st',
    Forall (fun c => psound_at (clause_body c)) cls -> clauses_names_ok cls = true ->
    ctx_names_ok ctx = true -> tables ts fs st -> pinv st -> In td ts -> targs_ok td targs ->
    td_pol td = (if is_case then FData else FCodata) -> (is_case = true -> ty_names_ok T = true) ->
    check_clauses is_case (print_targs targs) T (map xs_name (td_xtors td)) (prep_clauses (check_term_gen eager) cls) st ctx
      = COk (cls', [], st') ->
    same_names (map clause_xtor cls) (map xs_name (td_xtors td)) = true
    /\ chk_clauses_with (chk ts fs) (E ctx) td targs (if is_case then Some T else None) cls = true
    /\ pinv st' /\ same_templates st st' /\ grows st st' /\ clauses_closed (ikeys st') cls' = true.
  Proof.
    intros eager is_case T td targs cls st ctx cls' st' HF Hm Hc Tb I Htd Hok Hpol HT H.
    destruct (check_clauses_psound is_case T td targs _ _ st ctx cls' [] st' (prep_clauses_psound eager cls HF Hm) Hc Tb I Htd Hok (fun x H => H) Hpol HT H)
      as [used [Hp [Hmap [Hall [I' [S [G C]]]]]]].
    rewrite app_nil_r in Hp.
    assert (Hnd : nodup (map xs_name (td_xtors td)) = true).
    { eapply xtor_names_of_type_nodup; [apply (pw_nodup_xtors ts fs W)|eassumption|reflexivity]. }
    destruct (clauses_perm_result ts fs _ td targs _ _ cls used Hp Hmap Hnd Hall). splits; auto.
  Qed.

  Lemma wf_decl_inv : forall td targs, In td ts -> wf_ty ts (FDecl (td_name td) targs) = true -> targs_ok td targs.
  Proof.
    intros td targs Htd H. simpl in H. rewrite (pw_find_type ts fs W td Htd) in H.
    apply andb_true_iff in H. destruct H as [Hl Hw]. apply PeanoNat.Nat.eqb_eq in Hl. split; assumption.
  Qed.

  Lemma lookup_or_template_psound : forall pol st x targs ty xs st1,
    tables ts fs st -> pinv st -> name_ok x = true -> tys_names_ok targs = true ->
    lookup_ty_for_xtor_or_template pol st x targs = COk (ty, xs, st1) ->
    exists td, In td ts /\ td_pol td = pol /\ ty = FDecl (td_name td) targs /\ xs = map xs_name (td_xtors td)
               /\ In x xs /\ targs_ok td targs /\ pinv st1 /\ same_templates st st1 /\ grows st st1 /\ has_inst_p st1 ty.
  Proof.
    intros pol st x targs ty xs st1 T I Nx Nt H. unfold lookup_ty_for_xtor_or_template in H.
    destruct (lookup_ty_for_xtor pol st (x ++ print_targs targs)%string) as [[ty0 xs0]|] eqn:El.
    - inversion H; subst. destruct (lookup_ty_for_xtor_sound _ _ _ _ _ _ I Nx Nt El) as [td [Htd [Hp [-> [-> [Hx [Hok Hi]]]]]]].
      exists td. splits; auto using same_templates_refl, grows_refl.
    - unfold lookup_ty_template_for_xtor in H. rewrite (t_tt_list _ _ _ T), find_template_find_xtor in H.
      destruct (find_xtor ts pol x) as [[td s]|] eqn:Ef; simpl in H; [|discriminate].
      apply cbind_ok in H. destruct H as [st2 [Hc H]]. inversion H; subst.
      apply find_xtor_in in Ef. destruct Ef as [Hin [Hp Hs]].
      assert (Nty : ty_names_ok (FDecl (td_name td) targs) = true).
      { rewrite ty_names_ok_decl, (PW_tnames _ _ W td Hin). exact Nt. }
      destruct (ty_check_sound ts fs W _ st st1 Nty T I Hc) as [Hw [I1 [S1 [G1 Hi]]]].
      exists td. splits; auto.
      + apply find_xsig_spec in Hs. destruct Hs as [Hs <-]. apply in_map. assumption.
      + apply wf_decl_inv; assumption.
  Qed.

  Lemma eager_pstep : forall (eager : bool) T st st0, ty_names_ok T = true -> tables ts fs st -> pinv st ->
    (if eager then ty_check T st else COk st) = COk st0 ->
    pinv st0 /\ same_templates st st0 /\ grows st st0.
  Proof.
    intros eager T st st0 Hm Tb I H. destruct eager.
    - destruct (ty_check_sound ts fs W _ _ _ Hm Tb I H) as [_ [I1 [S1 [G1 _]]]]. auto.
    - inversion H; subst. auto using same_templates_refl, grows_refl.
  Qed.


  Theorem check_term_gen_psound : forall t, psound_at t.
  Proof.
    intros t. induction t using fterm_ind'; unfold psound_at;
      intros eager st ctx T t' st' Hm Hc HT Tb I Hk; simpl in Hm.
    - (* FVar *)
      apply run_var in Hk. destruct Hk as (Hchi & found & st1 & Hl & H1 & H2 & ->).
      destruct (lookup_var_E _ _ _ Hl) as [HE [b0 [Hb0 Hbt]]].
      assert (Hmf : ty_names_ok found = true) by (subst found; apply (ctx_names_ok_in ctx); assumption).
      destruct (ann_check_psound ty found st st1 Hm Hmf Tb I H1) as [Hann [I1 [S1 G1]]].
      destruct (check_equality_sound ts fs W _ _ _ _ HT Hmf (tables_same _ _ _ _ Tb S1) I1 H2) as [Heq [_ [I2 [S2 [G2 HiT]]]]].
      rewrite <- Heq in HE, Hann. simpl. unfold is_prd. rewrite HE, fty_eqb_refl, Hann, Hchi. splits; frame.
      apply has_inst_declared. exact HiT.
    - (* FLit *)
      apply run_lit in Hk. destruct Hk as [H1 ->].
      destruct (check_equality_sound ts fs W T FI64 _ _ HT eq_refl Tb I H1) as [Heq [_ [I2 [S2 [G2 _]]]]].
      subst T. splits; frame.
    - (* FOp *)
      apply andb_true_iff in Hm. destruct Hm as [Hm1 Hm2].
      apply run_op in Hk. destruct Hk as (st1 & a' & st2 & b' & H1 & H2 & H3 & ->).
      destruct (check_equality_sound ts fs W FI64 T _ _ eq_refl HT Tb I H1) as [Heq [_ [I1 [S1 [G1 _]]]]].
      subst T.
      destruct (IHt1 eager st1 ctx FI64 a' st2 Hm1 Hc eq_refl (tables_same _ _ _ _ Tb S1) I1 H2) as [K1 [I2 [S2 [G2 C2]]]].
      assert (S12 : same_templates st st2) by frame.
      destruct (IHt2 eager st2 ctx FI64 b' st' Hm2 Hc eq_refl (tables_same _ _ _ _ Tb S12) I2 H3) as [K2 [I3 [S3 [G3 C3]]]].
      simpl. rewrite K1, K2. splits; frame.
      rewrite (term_closed_mono _ _ (grows_names_le _ _ G3) _ C2), C3. reflexivity.
    - (* FIfC *)
      apply andb_true_iff in Hm. destruct Hm as [Hm Hm4]. apply andb_true_iff in Hm. destruct Hm as [Hm Hm3].
      apply andb_true_iff in Hm. destruct Hm as [Hm1 Hm2].
      apply run_ifc in Hk. destruct Hk as (a' & st1 & b' & st2 & th' & st3 & el' & H1 & H2 & H3 & H4 & ->).
      destruct (IHt1 eager st ctx FI64 a' st1 Hm1 Hc eq_refl Tb I H1) as [K1 [I1 [S1 [G1 C1]]]].
      assert (Hb : match b with Some b' => chk ts fs (E ctx) b' FI64 | None => true end = true
                   /\ pinv st2 /\ same_templates st1 st2 /\ grows st1 st2
                   /\ match b' with Some b1 => term_closed (ikeys st2) b1 | None => true end = true).
      { destruct b as [b0|], b' as [b1|]; try contradiction.
        - eapply H; [reflexivity|exact Hm2|exact Hc|reflexivity|exact (tables_same _ _ _ _ Tb S1)|exact I1|exact H2].
        - subst st2. splits; frame. }
      destruct Hb as [K2 [I2 [S2 [G2 C2]]]].
      assert (S02 : same_templates st st2) by frame.
      destruct (IHt2 eager st2 ctx T th' st3 Hm3 Hc HT (tables_same _ _ _ _ Tb S02) I2 H3) as [K3 [I3 [S3 [G3 C3]]]].
      assert (S03 : same_templates st st3) by frame.
      destruct (IHt3 eager st3 ctx T el' st' Hm4 Hc HT (tables_same _ _ _ _ Tb S03) I3 H4) as [K4 [I4 [S4 [G4 C4]]]].
      simpl. rewrite K1, K2, K3, K4. splits; frame.
      rewrite (term_closed_mono _ _ (grows_names_le _ _ (grows_trans _ _ _ G2 (grows_trans _ _ _ G3 G4))) _ C1).
      rewrite (term_closed_mono _ _ (grows_names_le _ _ G4) _ C3), C4.
      destruct b' as [b1|]; [|reflexivity].
      rewrite (term_closed_mono _ _ (grows_names_le _ _ (grows_trans _ _ _ G3 G4)) _ C2). reflexivity.
    - (* FPrint *)
      apply andb_true_iff in Hm. destruct Hm as [Hm1 Hm2].
      apply run_print in Hk. destruct Hk as (a' & st1 & n' & H1 & H2 & ->).
      destruct (IHt1 eager st ctx FI64 a' st1 Hm1 Hc eq_refl Tb I H1) as [K1 [I1 [S1 [G1 C1]]]].
      destruct (IHt2 eager st1 ctx T n' st' Hm2 Hc HT (tables_same _ _ _ _ Tb S1) I1 H2) as [K2 [I2 [S2 [G2 C2]]]].
      simpl. rewrite K1, K2. splits; frame.
      rewrite (term_closed_mono _ _ (grows_names_le _ _ G2) _ C1), C2. reflexivity.
    - (* FLet *)
      apply andb_true_iff in Hm. destruct Hm as [Hm Hm3]. apply andb_true_iff in Hm. destruct Hm as [Hm1 Hm2].
      apply run_let in Hk. destruct Hk as (st1 & a' & st2 & b' & H1 & H2 & H3 & ->).
      destruct (ty_check_sound ts fs W _ _ _ Hm1 Tb I H1) as [Hw [I1 [S1 [G1 Hi1]]]].
      destruct (IHt1 eager st1 ctx vty a' st2 Hm2 Hc Hm1 (tables_same _ _ _ _ Tb S1) I1 H2) as [K1 [I2 [S2 [G2 C2]]]].
      assert (S02 : same_templates st st2) by frame.
      assert (Hc' : ctx_names_ok (ctx ++ [mkfb v FPrd vty]) = true).
      { apply ctx_names_ok_app; [assumption|]. unfold ctx_names_ok. simpl. rewrite Hm1. reflexivity. }
      destruct (IHt2 eager st2 _ T b' st' Hm3 Hc' HT (tables_same _ _ _ _ Tb S02) I2 H3) as [K2 [I3 [S3 [G3 C3]]]].
      rewrite E_snoc in K2. simpl. rewrite Hw, K1, K2. splits; frame.
      rewrite (term_closed_mono _ _ (grows_names_le _ _ G3) _ C2), C3.
      rewrite (ty_declared_mono _ _ _ (grows_names_le _ _ (grows_trans _ _ _ G2 G3)) (has_inst_declared _ _ Hi1)). reflexivity.
    - (* FCall *)
      rewrite terms_names_ok_eq in Hm.
      apply run_call in Hk. destruct Hk as (types & ret & st1 & args' & Ed & H1 & H2 & ->).
      rewrite (t_df _ _ _ Tb) in Ed. destruct (find_def fs f) as [d|] eqn:Ef; [|discriminate]. simpl in Ed. inversion Ed; subst.
      assert (Hdin : In d fs) by (unfold find_def in Ef; apply find_some in Ef; tauto).
      destruct (PW_defs _ _ W d Hdin) as [Hmd Hmr].
      destruct (check_equality_sound ts fs W _ _ _ _ HT Hmr Tb I H1) as [Heq [_ [I1 [S1 [G1 Hi1]]]]].
      rewrite <- (inst_ctx_nil (fdctx d)) in H2.
      destruct (check_args_psound args H eager [] [] _ _ _ _ _ Hm Hc Hmd eq_refl (tables_same _ _ _ _ Tb S1) I1 H2) as [K [I2 [S2 [G2 C2]]]].
      subst T. simpl. rewrite Ef, fty_eqb_refl, K. splits; frame.
      rewrite terms_closed_eq, C2, andb_true_r.
      eapply ty_declared_mono; [apply (grows_names_le _ _ G2)|]. apply has_inst_declared. exact Hi1.
    - (* FCtor *)
      apply andb_true_iff in Hm. destruct Hm as [Nx Hm]. rewrite terms_names_ok_eq in Hm.
      apply run_ctor in Hk. destruct Hk as (st0 & n & targs & types & ty & xs & args' & st1 & H0 & -> & Ec & El & H1 & H2 & ->).
      destruct (eager_pstep _ _ _ _ HT Tb I H0) as [I0 [S0 G0]].
      pose proof (tables_same _ _ _ _ Tb S0) as Tb0.
      destruct (ty_names_ok_decl_inv _ _ HT) as [Nn Nt].
      destruct (ctor_instance_sound _ _ _ _ I0 Nx Nt Ec) as [td [s [Htd [Hp [Hs [Hsn [Hok ->]]]]]]].
      destruct (lookup_ty_for_xtor_sound _ _ _ _ _ _ I0 Nx Nt El) as [td2 [Htd2 [Hp2 [-> [-> [Hx2 _]]]]]].
      assert (td2 = td).
      { eapply owner_of_names; [exact Htd2|exact Htd|congruence|exact Hx2|]. rewrite <- Hsn. apply in_map. assumption. }
      subst td2.
      destruct (PW_sigs _ _ W td s Htd Hs) as [Nsg _].
      destruct (check_args_psound args H eager _ _ _ _ _ _ _ Hm Hc Nsg Nt Tb0 I0 H1) as [K [I1 [S1 [G1 C1]]]].
      assert (S01 : same_templates st st1) by frame.
      pose proof (decl_ty_names_ok td targs Htd Nt) as Nty.
      destruct (check_equality_sound ts fs W _ _ _ _ HT Nty (tables_same _ _ _ _ Tb S01) I1 H2) as [Heq [_ [I2 [S2 [G2 Hi2]]]]].
      assert (Hcl : term_closed (ikeys st') (FCtor x args' (Some (FDecl n targs))) = true).
      { cbn [term_closed oty_declared]. rewrite terms_closed_eq, (terms_closed_mono _ _ _ (grows_names_le _ _ G2) C1), andb_true_r.
        apply has_inst_declared. exact Hi2. }
      inversion Heq; subst n. destruct Hok as [Hlen _].
      simpl. rewrite (pw_find_type ts fs W td Htd), Hp, Hlen, PeanoNat.Nat.eqb_refl.
      rewrite <- Hsn, (find_xsig_of_in ts fs W td s Htd Hs). simpl. rewrite K. splits; frame.
    - (* FDtor *)
      apply andb_true_iff in Hm. destruct Hm as [Hm Hm3]. apply andb_true_iff in Hm. destruct Hm as [Hm Hm2].
      apply andb_true_iff in Hm. destruct Hm as [Nx Nt].
      rewrite terms_names_ok_eq in Hm3.
      apply run_dtor in Hk. destruct Hk as (ty & xs & st1 & s' & st2 & types & ret & args' & st3 & H1 & H2 & Ed & H3 & H4 & ->).
      destruct (lookup_or_template_psound _ _ _ _ _ _ _ Tb I Nx Nt H1) as [td [Htd [Hp [-> [-> [Hx [Hok [I1 [S1 [G1 Hi1]]]]]]]]]].
      pose proof (decl_ty_names_ok td targs Htd Nt) as Nty.
      pose proof (has_inst_targs_declared ts fs W st1 _ _ I1 (PW_tnames _ _ W td Htd) Nt Hi1) as Cta.
      destruct (IHt eager st1 ctx _ s' st2 Hm2 Hc Nty (tables_same _ _ _ _ Tb S1) I1 H2) as [K1 [I2 [S2 [G2 C2]]]].
      assert (S02 : same_templates st st2) by frame. pose proof (tables_same _ _ _ _ Tb S02) as Tb2.
      destruct (dtor_instance_sound _ _ _ _ _ I2 Nx Nt Ed) as [td' [s [r0 [Htd' [Hp' [Hs [Hsn [_ [Hret [-> ->]]]]]]]]]].
      assert (td' = td).
      { eapply owner_of_names; [exact Htd'|exact Htd|congruence| |exact Hx]. rewrite <- Hsn. apply in_map. assumption. }
      subst td'.
      destruct (PW_sigs _ _ W td s Htd Hs) as [Nsg Nret]. rewrite Hret in Nret. simpl in Nret.
      destruct (check_args_psound args H eager _ _ _ _ _ _ _ Hm3 Hc Nsg Nt Tb2 I2 H3) as [K2 [I3 [S3 [G3 C3]]]].
      assert (S03 : same_templates st st3) by frame.
      assert (Nr : ty_names_ok (inst (td_params td) targs r0) = true) by (apply inst_names_ok; assumption).
      destruct (check_equality_sound ts fs W _ _ _ _ HT Nr (tables_same _ _ _ _ Tb S03) I3 H4) as [Heq [_ [I4 [S4 [G4 Hi4]]]]].
      assert (Hcl : term_closed (ikeys st') (FDtor s' x targs args' (Some T)) = true).
      { cbn [term_closed oty_declared]. rewrite terms_closed_eq, (terms_closed_mono _ _ _ (grows_names_le _ _ G4) C3), andb_true_r.
        rewrite (has_inst_declared _ _ Hi4). simpl.
        rewrite (tys_declared_mono _ _ _ (grows_names_le _ _ (grows_trans _ _ _ G2 (grows_trans _ _ _ G3 G4))) Cta). simpl.
        exact (term_closed_mono _ _ (grows_names_le _ _ (grows_trans _ _ _ G3 G4)) _ C2). }
      destruct Hok as [Hlen Hwf].
      pose proof (pw_find_xtor ts fs W td s Htd Hs) as Hfx. rewrite Hp', Hsn in Hfx.
      simpl. rewrite Hfx, Hlen, PeanoNat.Nat.eqb_refl, Hwf. simpl. rewrite K1, K2, Hret, Heq, fty_eqb_refl. splits; frame.
      rewrite Heq in Hcl. exact Hcl.
    - (* FCase *)
      apply andb_true_iff in Hm. destruct Hm as [Hm Hm3]. apply andb_true_iff in Hm. destruct Hm as [Nt Hm2].
      rewrite clauses_names_ok_eq in Hm3.
      apply run_case in Hk.
      destruct Hk as (p0 & x0 & ns0 & c0 & b0 & clr & ty & xs & st1 & s' & st2 & cls' & -> & H1 & H2 & H3 & ->).
      assert (Nx : name_ok x0 = true).
      { simpl in Hm3. apply andb_true_iff in Hm3. destruct Hm3 as [Hm3 _]. unfold clause_names_ok in Hm3.
        apply andb_true_iff in Hm3. tauto. }
      destruct (lookup_or_template_psound _ _ _ _ _ _ _ Tb I Nx Nt H1) as [td [Htd [Hp [-> [-> [Hx [Hok [I1 [S1 [G1 Hi1]]]]]]]]]].
      pose proof (decl_ty_names_ok td targs Htd Nt) as Nty.
      pose proof (has_inst_targs_declared ts fs W st1 _ _ I1 (PW_tnames _ _ W td Htd) Nt Hi1) as Cta.
      destruct (IHt eager st1 ctx _ s' st2 Hm2 Hc Nty (tables_same _ _ _ _ Tb S1) I1 H2) as [K1 [I2 [S2 [G2 C2]]]].
      assert (S02 : same_templates st st2) by frame.
      destruct (clauses_psound_result eager true T td targs _ st2 ctx cls' st' H Hm3 Hc (tables_same _ _ _ _ Tb S02) I2 Htd Hok Hp (fun _ => HT) H3)
        as [Ksn [Kcl [I3 [S3 [G3 C3]]]]].
      assert (Hcl : term_closed (ikeys st') (FCase s' targs cls' (Some T)) = true).
      { cbn [term_closed oty_declared]. rewrite clauses_closed_eq, C3, andb_true_r.
        rewrite (tys_declared_mono _ _ _ (grows_names_le _ _ (grows_trans _ _ _ G2 G3)) Cta). simpl.
        exact (term_closed_mono _ _ (grows_names_le _ _ G3) _ C2). }
      destruct (xtor_of_name _ _ Hx) as [s [Hs Hsn]].
      pose proof (pw_find_xtor ts fs W td s Htd Hs) as Hfx. rewrite Hp, Hsn in Hfx.
      destruct Hok as [Hlen Hwf].
      rewrite (chk_case_eq ts fs _ t targs (FClause p0 x0 ns0 c0 b0) clr r T td s Hfx), K1, Ksn, Kcl, Hlen, PeanoNat.Nat.eqb_refl, Hwf. splits; frame.
    - (* FNew *)
      rewrite clauses_names_ok_eq in Hm.
      apply run_new in Hk. destruct Hk as (st0 & n & targs & targs' & dtors & cls' & H0 & -> & Eg & H1 & ->).
      destruct (eager_pstep _ _ _ _ HT Tb I H0) as [I0 [S0 G0]].
      pose proof (tables_same _ _ _ _ Tb S0) as Tb0.
      destruct (ty_names_ok_decl_inv _ _ HT) as [Nn Nt].
      destruct (pi_types _ _ I0 _ _ _ _ Eg) as [td [Htd [Ek [Hp [-> Hok]]]]].
      destruct (instance_name_inj _ _ _ _ (name_ok_no_delim _ Nn) (name_ok_no_delim _ (PW_tnames _ _ W td Htd))
                  Nt (targs_ok_names _ _ Hok) Ek) as [-> <-].
      destruct (clauses_psound_result eager false (FDecl (td_name td) targs) td targs _ st0 ctx cls' st' H Hm Hc Tb0 I0 Htd Hok Hp
                  (fun H => ltac:(discriminate)) H1) as [Ksn [Kcl [I3 [S3 [G3 C3]]]]].
      assert (Hcl : term_closed (ikeys st') (FNew cls' (Some (FDecl (td_name td) targs))) = true).
      { cbn [term_closed oty_declared]. rewrite clauses_closed_eq, C3, andb_true_r.
        eapply ty_declared_mono; [apply (grows_names_le _ _ G3)|]. apply has_inst_declared. simpl. unfold ahas. rewrite Eg. reflexivity. }
      destruct Hok as [Hlen Hwf].
      simpl. rewrite (pw_find_type ts fs W td Htd), Hp, Hlen, PeanoNat.Nat.eqb_refl. simpl. rewrite Ksn, Kcl. splits; frame.
    - (* FLabel *)
      apply run_label in Hk. destruct Hk as (b' & H1 & ->).
      assert (Hc' : ctx_names_ok (ctx ++ [mkfb l FCns T]) = true).
      { apply ctx_names_ok_app; [assumption|]. unfold ctx_names_ok. simpl. rewrite HT. reflexivity. }
      destruct (IHt eager st _ T b' st' Hm Hc' HT Tb I H1) as [K [I1 [S1 [G1 C1]]]].
      rewrite E_snoc in K. simpl. rewrite K. splits; frame.
    - (* FGoto *)
      apply run_goto in Hk. destruct Hk as (cont & b' & Hl & H1 & ->).
      destruct (lookup_covar_E _ _ _ Hl) as [HE [b0 [Hb0 Hbt]]].
      assert (Hmf : ty_names_ok cont = true) by (subst cont; apply (ctx_names_ok_in ctx); assumption).
      destruct (IHt eager st ctx cont b' st' Hm Hc Hmf Tb I H1) as [K [I1 [S1 [G1 C1]]]].
      simpl. unfold cns_ty. rewrite HE, K. splits; frame.
    - (* FExit *)
      apply run_exit in Hk. destruct Hk as (b' & H1 & ->).
      destruct (IHt eager st ctx FI64 b' st' Hm Hc eq_refl Tb I H1) as [K [I1 [S1 [G1 C1]]]].
      simpl. rewrite K. splits; frame.
    - (* FParen *)
      apply run_paren in Hk. destruct Hk as (b' & H1 & ->).
      destruct (IHt eager st ctx T b' st' Hm Hc HT Tb I H1) as [K [I1 [S1 [G1 C1]]]].
      simpl. rewrite K. splits; frame.
  Qed.
End PSound.
