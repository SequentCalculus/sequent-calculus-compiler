(* The model of subst_sim (Model/Uniquify.v): a substitution of variables by variables (the only
   kind uniquify performs) never panics on well-formed input and preserves binders, depth,
   well-formedness, the shape tests of Cut::focus, the id bound and the scoping of non-zero ids
   ([subst_var_spec_all]).  The shadowing lemmas are in Proof/FocusExtra.v. *)
From Coq Require Import List ZArith NArith String Bool Lia.
From SCC Require Import Base.Sexp Lang.CoreSyn Model.Backend Model.Uniquify Model.FocusCheck Proof.CoreInd.
Import ListNotations.
Open Scope list_scope.


(* every pair of s maps to a variable whose id is <= b and bound in env *)
Definition rng (b : N) (env : list N) (s : csubst) : Prop :=
  Forall (fun p => exists c v ty, snd p = CXVar c v ty /\ (cid_id v <= b)%N /\ In (cid_id v) env) s.

Lemma rng_nil : forall b env, rng b env [].
Proof. intros; constructor. Qed.
Lemma rng_filter : forall b env f s, rng b env s -> rng b env (filter f s).
Proof.
  unfold rng; intros b env f s H. rewrite Forall_forall in *. intros p Hp.
  apply filter_In in Hp. apply H; tauto.
Qed.
Lemma rng_env : forall b env env' s, rng b env s -> incl env env' -> rng b env' s.
Proof.
  unfold rng; intros b env env' s H I. rewrite Forall_forall in *. intros p Hp.
  destruct (H p Hp) as (c & v & ty & E & L & M). exists c, v, ty; auto.
Qed.
Lemma subst_find_in : forall x s t, subst_find x s = Some t -> exists k, In (k, t) s.
Proof.
  induction s as [|[k u] s IH]; simpl; intros t H; [discriminate|].
  destruct (cident_eqb k x).
  - inversion H; subst; eauto.
  - destruct (IH _ H) as (k' & Hk); eauto.
Qed.

Definition mem_le (b : N) (l : list N) : Prop := forall i, In i l -> (i <= b)%N.

Lemma forallb_leb : forall b l, forallb (fun i => N.leb i b) l = true <-> mem_le b l.
Proof.
  intros; rewrite forallb_forall; unfold mem_le; split; intros H i Hi.
  - apply N.leb_le; auto.
  - apply N.leb_le; auto.
Qed.

Lemma mapr_spec : forall (X Y : Type) (f : X -> res Y) (P : X -> Y -> Prop) (l : list X),
  Forall (fun x => exists y, f x = Ok y /\ P x y) l ->
  exists l', mapr f l = Ok l' /\ Forall2 P l l'.
Proof.
  induction l as [|x l IH]; intros H; simpl.
  - exists []; auto.
  - inversion H as [|? ? (y & E & Py) Hl]; subst. destruct (IH Hl) as (l' & El & Pl).
    rewrite E; simpl. rewrite El; simpl. exists (y :: l'); auto.
Qed.

Definition sspec_term (c : cchi) (b : N) (env : list N) (t t' : cterm) : Prop :=
  binder_ids_term t' = binder_ids_term t /\ depth_term t' = depth_term t /\ wf_term c t' = true /\
  is_xtor t' = is_xtor t /\ is_op t' = is_op t /\ ids_le_term b t' = true /\ scoped_term env t' = true.
Definition sspec_arg (b : N) (env : list N) (a a' : carg) : Prop :=
  binder_ids_arg a' = binder_ids_arg a /\ depth_arg a' = depth_arg a /\ wf_arg a' = true /\
  ids_le_arg b a' = true /\ scoped_arg env a' = true.
Definition sspec_clause (b : N) (env : list N) (a a' : cclause) : Prop :=
  binder_ids_clause a' = binder_ids_clause a /\ depth_clause a' = depth_clause a /\ wf_clause a' = true /\
  ids_le_clause b a' = true /\ scoped_clause env a' = true.
Definition sspec_stmt (b : N) (env : list N) (s s' : cstmt) : Prop :=
  binder_ids_stmt s' = binder_ids_stmt s /\ depth_stmt s' = depth_stmt s /\ wf_stmt s' = true /\
  ids_le_stmt b s' = true /\ scoped_stmt env s' = true.

Lemma forall2_forallb : forall (X : Type) (f : X -> bool) (P : X -> X -> Prop) (l l' : list X),
  Forall2 P l l' -> (forall a a', P a a' -> f a' = true) -> forallb f l' = true.
Proof. induction 1; simpl; intros; auto. rewrite (H1 _ _ H); auto. Qed.

Lemma depth_args_eq : forall l,
  (fix go (l : list carg) : nat := match l with [] => 0%nat | y :: r => Nat.max (depth_arg y) (go r) end) l = depth_args l.
Proof. induction l; simpl; auto. Qed.
Lemma depth_clauses_eq : forall l,
  (fix go (l : list cclause) : nat := match l with [] => 0%nat | y :: r => Nat.max (depth_clause y) (go r) end) l = depth_clauses l.
Proof. induction l; simpl; auto. Qed.
Lemma forall2_depth_args : forall l l', Forall2 (fun a a' => depth_arg a' = depth_arg a) l l' -> depth_args l' = depth_args l.
Proof. induction 1; simpl; congruence. Qed.
Lemma forall2_depth_clauses : forall l l', Forall2 (fun a a' => depth_clause a' = depth_clause a) l l' -> depth_clauses l' = depth_clauses l.
Proof. induction 1; simpl; congruence. Qed.

Lemma forall2_weaken : forall (X Y : Type) (P Q : X -> Y -> Prop) l l',
  Forall2 P l l' -> (forall a a', P a a' -> Q a a') -> Forall2 Q l l'.
Proof. induction 1; intros; constructor; auto. Qed.

(* a list of substituted arguments (clauses) satisfies the list forms of the five conjuncts *)
Lemma sspec_args : forall b env l l', Forall2 (sspec_arg b env) l l' ->
  flat_map binder_ids_arg l' = flat_map binder_ids_arg l /\ depth_args l' = depth_args l /\
  forallb wf_arg l' = true /\ forallb (ids_le_arg b) l' = true /\ forallb (scoped_arg env) l' = true.
Proof.
  induction 1 as [|a a' l l' (A1 & A2 & A3 & A4 & A5) _ (L1 & L2 & L3 & L4 & L5)]; simpl; [auto|].
  rewrite A1, A2, A3, A4, A5, L1, L2, L3, L4, L5; auto.
Qed.
Lemma sspec_clauses : forall b env l l', Forall2 (sspec_clause b env) l l' ->
  flat_map binder_ids_clause l' = flat_map binder_ids_clause l /\ depth_clauses l' = depth_clauses l /\
  forallb wf_clause l' = true /\ forallb (ids_le_clause b) l' = true /\ forallb (scoped_clause env) l' = true.
Proof.
  induction 1 as [|a a' l l' (A1 & A2 & A3 & A4 & A5) _ (L1 & L2 & L3 & L4 & L5)]; simpl; [auto|].
  rewrite A1, A2, A3, A4, A5, L1, L2, L3, L4, L5; auto.
Qed.

(* going under binders: entries for the bound names are filtered out, the environment grows *)
Lemma rng_under : forall b env env' f s, rng b env s -> rng b (env' ++ env) (filter f s).
Proof. intros; apply rng_filter. eapply rng_env; eauto. intros x Hx; apply in_or_app; auto. Qed.

Lemma subst_var_spec_all :
  (forall t c ps cs b env, rng b env ps -> rng b env cs ->
     wf_term c t = true -> ids_le_term b t = true -> scoped_term env t = true ->
     exists t', subst_term c t ps cs = Ok t' /\ sspec_term c b env t t') /\
  (forall a ps cs b env, rng b env ps -> rng b env cs ->
     wf_arg a = true -> ids_le_arg b a = true -> scoped_arg env a = true ->
     exists a', subst_arg a ps cs = Ok a' /\ sspec_arg b env a a') /\
  (forall cl ps cs b env, rng b env ps -> rng b env cs ->
     wf_clause cl = true -> ids_le_clause b cl = true -> scoped_clause env cl = true ->
     exists cl', subst_clause cl ps cs = Ok cl' /\ sspec_clause b env cl cl') /\
  (forall s ps cs b env, rng b env ps -> rng b env cs ->
     wf_stmt s = true -> ids_le_stmt b s = true -> scoped_stmt env s = true ->
     exists s', subst_stmt s ps cs = Ok s' /\ sspec_stmt b env s s').
Proof.
  apply core_mutind.
  - (* XVar *)
    intros c0 v ty c ps cs b env Rp Rc W I S. simpl.
    assert (Hs : forall s, rng b env s ->
               exists t', match subst_find v s with None => Ok (CXVar c0 v ty) | Some p => Ok p end = Ok t'
                          /\ sspec_term c b env (CXVar c0 v ty) t').
    { intros s Rs. destruct (subst_find v s) as [p|] eqn:F.
      - destruct (subst_find_in _ _ _ F) as (k & Hk).
        unfold rng in Rs. rewrite Forall_forall in Rs. destruct (Rs _ Hk) as (c1 & v1 & ty1 & E & L & M).
        simpl in E; subst p. eexists; split; [reflexivity|].
        unfold sspec_term; simpl. repeat split; auto.
        + apply N.leb_le; auto.
        + apply orb_true_iff; right; apply memN_In; auto.
      - eexists; split; [reflexivity|]. unfold sspec_term; repeat split; auto. }
    destruct c; auto.
  - (* Lit *)
    intros n c ps cs b env Rp Rc W I S. simpl in *. destruct c; simpl in W; try discriminate.
    eexists; split; [reflexivity|]. unfold sspec_term; repeat split; auto.
  - (* Op *)
    intros a o b0 IHa IHb c ps cs b env Rp Rc W I S. simpl in *. destruct c; simpl in W; try discriminate.
    bsplit.
    destruct (IHa CPrd ps cs b env) as (a' & Ea & Sa); auto.
    destruct (IHb CPrd ps cs b env) as (b' & Eb & Sb); auto.
    rewrite Ea; simpl. rewrite Eb; simpl. eexists; split; [reflexivity|].
    unfold sspec_term in *. destruct Sa as (A1 & A2 & A3 & A4 & A5 & A6 & A7), Sb as (B1 & B2 & B3 & B4 & B5 & B6 & B7).
    simpl. rewrite A1, A2, A3, B1, B2, B3, A6, A7, B6, B7. repeat split; auto.
  - (* Mu *)
    intros c0 v s ty IHs c ps cs b env Rp Rc W I S. simpl in *. bsplit.
    destruct (IHs (subst_remove v ps) (subst_remove v cs) b (cid_id v :: env)) as (s' & Es & Ss); auto;
      try apply (rng_under b env [cid_id v]); auto.
    rewrite Es; simpl. eexists; split; [reflexivity|].
    destruct Ss as (S1 & S2 & S3 & S4 & S5). unfold sspec_term; simpl.
    rewrite S1, S2, S3, S4, S5, H. repeat split; auto.
  - (* Xtor *)
    intros c0 x args ty IH c ps cs b env Rp Rc W I S. simpl in *.
    rewrite forallb_forall in W, I, S.
    destruct (mapr_spec _ _ (fun a => subst_arg a ps cs) (sspec_arg b env) args) as (args' & E & F2).
    { rewrite Forall_forall in *. intros a Ha. apply IH; auto. }
    rewrite E; simpl. eexists; split; [reflexivity|].
    destruct (sspec_args _ _ _ _ F2) as (A1 & A2 & A3 & A4 & A5).
    unfold sspec_term; simpl. rewrite !depth_args_eq, A2. repeat split; auto.
  - (* XCase *)
    intros c0 cls ty IH c ps cs b env Rp Rc W I S. simpl in *.
    rewrite forallb_forall in W, I, S.
    destruct (mapr_spec _ _ (fun a => subst_clause a ps cs) (sspec_clause b env) cls) as (cls' & E & F2).
    { rewrite Forall_forall in *. intros a Ha. apply IH; auto. }
    rewrite E; simpl. eexists; split; [reflexivity|].
    destruct (sspec_clauses _ _ _ _ F2) as (A1 & A2 & A3 & A4 & A5).
    unfold sspec_term; simpl. rewrite !depth_clauses_eq, A2. repeat split; auto.
  - (* Producer *)
    intros p IHp ps cs b env Rp Rc W I S. simpl in *.
    destruct (IHp CPrd ps cs b env) as (p' & E & Sp); auto. rewrite E; simpl.
    eexists; split; [reflexivity|]. destruct Sp as (S1 & S2 & S3 & S4 & S5 & S6 & S7).
    unfold sspec_arg; simpl; auto.
  - (* Consumer *)
    intros p IHp ps cs b env Rp Rc W I S. simpl in *.
    destruct (IHp CCns ps cs b env) as (p' & E & Sp); auto. rewrite E; simpl.
    eexists; split; [reflexivity|]. destruct Sp as (S1 & S2 & S3 & S4 & S5 & S6 & S7).
    unfold sspec_arg; simpl; auto.
  - (* Clause *)
    intros c0 x ctx body IHb ps cs b env Rp Rc W I S. simpl in *. bsplit.
    destruct (IHb (subst_remove_ctx ctx ps) (subst_remove_ctx ctx cs) b (cids ctx ++ env)) as (s' & Es & Ss); auto;
      try apply rng_under; auto.
    rewrite Es; simpl. eexists; split; [reflexivity|].
    destruct Ss as (S1 & S2 & S3 & S4 & S5). unfold sspec_clause; simpl.
    rewrite S1, S2, S3, S4, S5, H. repeat split; auto.
  - (* Cut *)
    intros p ty k IHp IHk ps cs b env Rp Rc W I S. simpl in *. bsplit.
    destruct (IHp CPrd ps cs b env) as (p' & Ep & Sp); auto.
    destruct (IHk CCns ps cs b env) as (k' & Ek & Sk); auto.
    rewrite Ep; simpl. rewrite Ek; simpl. eexists; split; [reflexivity|].
    destruct Sp as (A1 & A2 & A3 & A4 & A5 & A6 & A7), Sk as (B1 & B2 & B3 & B4 & B5 & B6 & B7).
    unfold sspec_stmt; simpl. rewrite A1, A2, A3, A4, A5, A6, A7, B1, B2, B3, B4, B6, B7.
    repeat split; auto. bsplit; auto.
  - (* IfC *)
    intros so a bo t e IHa IHb IHt IHe ps cs b env Rp Rc W I S. simpl in *. bsplit.
    destruct (IHa CPrd ps cs b env) as (a' & Ea & Sa); auto.
    destruct (IHt ps cs b env) as (t' & Et & St); auto.
    destruct (IHe ps cs b env) as (e' & Ee & Se); auto.
    rewrite Ea; simpl.
    destruct Sa as (A1 & A2 & A3 & A4 & A5 & A6 & A7), St as (T1 & T2 & T3 & T4 & T5), Se as (E1 & E2 & E3 & E4 & E5).
    destruct bo as [b0|]; simpl in *.
    + destruct (IHb CPrd ps cs b env) as (b' & Eb & Sb); auto. rewrite Eb; simpl.
      rewrite Et; simpl. rewrite Ee; simpl. eexists; split; [reflexivity|].
      destruct Sb as (B1 & B2 & B3 & B4 & B5 & B6 & B7).
      unfold sspec_stmt; simpl. rewrite A1, A2, A3, A6, A7, B1, B2, B3, B6, B7, T1, T2, T3, T4, T5, E1, E2, E3, E4, E5.
      repeat split; auto.
    + rewrite Et; simpl. rewrite Ee; simpl. eexists; split; [reflexivity|].
      unfold sspec_stmt; simpl. rewrite A1, A2, A3, A6, A7, T1, T2, T3, T4, T5, E1, E2, E3, E4, E5.
      repeat split; auto.
  - (* Print *)
    intros nl a next IHa IHn ps cs b env Rp Rc W I S. simpl in *. bsplit.
    destruct (IHa CPrd ps cs b env) as (a' & Ea & Sa); auto.
    destruct (IHn ps cs b env) as (n' & En & Sn); auto.
    rewrite Ea; simpl. rewrite En; simpl. eexists; split; [reflexivity|].
    destruct Sa as (A1 & A2 & A3 & A4 & A5 & A6 & A7), Sn as (T1 & T2 & T3 & T4 & T5).
    unfold sspec_stmt; simpl. rewrite A1, A2, A3, A6, A7, T1, T2, T3, T4, T5. repeat split; auto.
  - (* Call *)
    intros f args ty IH ps cs b env Rp Rc W I S. simpl in *.
    rewrite forallb_forall in W, I, S.
    destruct (mapr_spec _ _ (fun a => subst_arg a ps cs) (sspec_arg b env) args) as (args' & E & F2).
    { rewrite Forall_forall in *. intros a Ha. apply IH; auto. }
    rewrite E; simpl. eexists; split; [reflexivity|].
    destruct (sspec_args _ _ _ _ F2) as (A1 & A2 & A3 & A4 & A5).
    unfold sspec_stmt; simpl. rewrite !depth_args_eq, A2. repeat split; auto.
  - (* Exit *)
    intros a ty IHa ps cs b env Rp Rc W I S. simpl in *.
    destruct (IHa CPrd ps cs b env) as (a' & Ea & Sa); auto.
    rewrite Ea; simpl. eexists; split; [reflexivity|].
    destruct Sa as (A1 & A2 & A3 & A4 & A5 & A6 & A7).
    unfold sspec_stmt; simpl. rewrite A1, A2, A3, A6, A7. repeat split; auto.
Qed.

Definition subst_var_spec_stmt := proj2 (proj2 (proj2 subst_var_spec_all)).
