(* C07, heap statements on AArch64: the heap-level meaning of the reference-count code of a substitution
   (Proof/A64Exec.v `share_h` / `erase_h`, Proof/A64Subst.v `rc_h`: exact heap maps) abstracts to the
   operations of the abstract allocator (Heap.share / Heap.erase) as long as no count wraps; only block
   headers change (x86-64: Proof/X86HSubstHeap.v).

   The one difference to x86-64: `erase_h` of AArch64 tests `wrap header = 0` (CMP #0 sets Z from the 64-bit
   result) where the abstract allocator tests `header = 0`; `erase_h_abs` therefore asks for the header to be a
   64-bit value above min_int (`min_int + 1 <= header <= max_int`, which also keeps the decrement from wrapping).
   The bound `hb2 B` with `B + 2^31 <= 2^62` of `rc_step_abs` / `rc_fold_abs` implies it, so the statements from
   `rc_good` on are literally the x86-64 ones. *)
From Coq Require Import List ZArith NArith String Bool Lia FMapPositive.
From SCC Require Import Base.Sexp Lang.AxSyn Sem.AxSem Sem.AxHeap Model.ParMoves Model.Backend Model.A64 Sem.A64Sem
     Generated.Constants Proof.A64State Proof.A64Sel Proof.A64PM Proof.A64Exec Proof.A64MemSubst Proof.SubstGraph
     Proof.A64Subst Proof.A64Mem.
From SCC Require Model.Heap Proof.X86Mem Proof.X86MemFrame Proof.X86HeapDefs Proof.X86HSubstHeap.
Import ListNotations.
Open Scope Z_scope.

Notation LIMIT := X86HeapDefs.LIMIT.
Notation hrun_eqB := X86HSubstHeap.hrun_eqB.

Definition absH (F H : Z) (hf : PM.t Z * Z) : Heap.st :=
  {| Heap.m := fun a => {| Heap.hdr := hget (fst hf) a;
                           Heap.ps := [hget (fst hf) (a + 16); hget (fst hf) (a + 32); hget (fst hf) (a + 48)] |};
     Heap.heap := H; Heap.free := snd hf; Heap.frontier := F |}.
Lemma absH_abs F s : absH F (reg_or0 s HEAP) (heap s, reg_or0 s FREE) = abs_heap F s.
Proof. reflexivity. Qed.

Lemma absH_set_hdr F H h f f' p v :
  is_blk p -> st_eqB (absH F H (PM.add (key p) v h, f'))
    {| Heap.m := Heap.set_hdr (Heap.m (absH F H (h, f))) p v; Heap.heap := H; Heap.free := f'; Heap.frontier := F |}.
Proof.
  intros Hp. pose proof (is_blk_pos p Hp) as Pp. split; [reflexivity|]. split; [reflexivity|]. split; [reflexivity|].
  intros x Hx. cbn [absH Heap.m fst]. unfold Heap.set_hdr, Heap.upd.
  destruct (Z.eqb_spec x p) as [->|Hne].
  - cbn [Heap.hdr Heap.ps]. rewrite !hget_add by exact Pp. rewrite Z.eqb_refl.
    destruct (Z.eqb_spec (p + 16) p); [lia|]. destruct (Z.eqb_spec (p + 32) p); [lia|]. destruct (Z.eqb_spec (p + 48) p); [lia|]. reflexivity.
  - destruct (X86MemFrame.is_blk_apart x p Hx Hp Hne) as [A|A]; rewrite !hget_add by exact Pp;
      repeat match goal with |- context [?a =? p] => destruct (Z.eqb_spec a p); [lia|] end; reflexivity.
Qed.

Lemma share_h_abs F H p n hf :
  (p = 0 \/ is_blk p) -> (p <> 0 -> wrap (hget (fst hf) p + n) = hget (fst hf) p + n) ->
  st_eqB (absH F H (share_h p n hf)) (Heap.share p n (absH F H hf)).
Proof.
  intros Hp Hw. destruct hf as [h f]. unfold share_h, Heap.share. cbn [fst snd] in *.
  destruct (Z.eqb_spec p 0) as [->|Hp0]; [apply X86Mem.st_eqB_refl|]. destruct Hp as [|Hb]; [contradiction|].
  rewrite (Hw Hp0). eapply X86Mem.st_eqB_trans; [apply (absH_set_hdr F H h f f p _ Hb)|]. apply X86Mem.st_eqB_refl.
Qed.
(* AArch64: the header must be a 64-bit value (the machine tests `wrap header = 0`), above min_int (the decrement) *)
Lemma erase_h_abs F H p hf :
  (p = 0 \/ is_blk p) -> (p <> 0 -> min_int + 1 <= hget (fst hf) p <= max_int) ->
  st_eqB (absH F H (erase_h p hf)) (Heap.erase p (absH F H hf)).
Proof.
  intros Hp Hw. destruct hf as [h f]. unfold Heap.erase. cbn [fst snd] in *.
  destruct (Z.eqb_spec p 0) as [->|Hp0]; [unfold erase_h; cbn [Z.eqb]; apply X86Mem.st_eqB_refl|].
  destruct Hp as [|Hb]; [contradiction|]. specialize (Hw Hp0).
  rewrite erase_h_in64 by (cbn [fst]; lia). cbn [fst snd].
  destruct (Z.eqb_spec p 0) as [|_]; [contradiction|].
  change (Heap.hdr (Heap.m (absH F H (h, f)) p)) with (hget h p).
  destruct (Z.eqb_spec (hget h p) 0) as [H0|Hn0].
  - eapply X86Mem.st_eqB_trans; [apply (absH_set_hdr F H h f p p _ Hb)|]. apply X86Mem.st_eqB_refl.
  - rewrite (wrap_in64 (hget h p - 1)) by lia.
    eapply X86Mem.st_eqB_trans; [apply (absH_set_hdr F H h f f p _ Hb)|]. apply X86Mem.st_eqB_refl.
Qed.

Definition rc_abs (s0 : astate) (sp : Z) (o : @rc_op atemp) : Heap.op :=
  match o with
  | RcErase t => Heap.OErase (ptr_of s0 sp t)
  | RcShare t n => Heap.OShare (ptr_of s0 sp t) (Z.of_N n)
  end.
Definition rc_good (s0 : astate) (sp : Z) (o : @rc_op atemp) : Prop :=
  (ptr_of s0 sp (rc_temp o) = 0 \/ is_blk (ptr_of s0 sp (rc_temp o))) /\
  match o with RcShare _ n => Z.of_N n <= 2147483648 | RcErase _ => True end.

Definition hb2 (B : Z) (hf : PM.t Z * Z) : Prop :=
  (forall x, is_blk x -> - B <= hget (fst hf) x <= B) /\ 0 <= snd hf <= B.

(* writing a header within the next bound into a block: the words outside blocks stay, the bound holds *)
Lemma set_hdr_bound B h f f' p v :
  is_blk p -> hb2 B (h, f) -> - B - 2147483648 <= v <= B + 2147483648 -> 0 <= f' <= B + 2147483648 ->
  (forall a, ~ is_blk a -> hget (PM.add (key p) v h) a = hget h a) /\ hb2 (B + 2147483648) (PM.add (key p) v h, f').
Proof.
  intros Hb [HB1 HB2] Hv Hf. pose proof (is_blk_pos p Hb) as Pp. cbn [fst snd] in *. split.
  - intros a Ha. rewrite hget_add by exact Pp. destruct (Z.eqb_spec a p) as [->|]; [contradiction|reflexivity].
  - split; cbn [fst snd]; [|exact Hf]. intros x Hx. rewrite hget_add by exact Pp. destruct (x =? p); [lia|specialize (HB1 x Hx); lia].
Qed.

Lemma rc_step_abs F H s0 sp o hf B :
  rc_good s0 sp o -> hb2 B hf -> LIMIT <= B -> B + 2147483648 <= 4611686018427387904 ->
  st_eqB (absH F H (rc_h s0 sp o hf)) (Heap.step (absH F H hf) (rc_abs s0 sp o)) /\
  (forall a, ~ is_blk a -> hget (fst (rc_h s0 sp o hf)) a = hget (fst hf) a) /\
  hb2 (B + 2147483648) (rc_h s0 sp o hf).
Proof.
  intros [Hp Hn] HB HL HS. pose proof HB as [HB1 HB2].
  assert (WR : forall z, - B - 2147483648 <= z <= B + 2147483648 -> wrap z = z).
  { intros z Hz. apply wrap_in64. unfold min_int, max_int, two63. lia. }
  assert (IN : forall x, is_blk x -> min_int + 1 <= hget (fst hf) x <= max_int).
  { intros x Hx. specialize (HB1 x Hx). unfold min_int, max_int, two63. lia. }
  assert (NULL : hb2 (B + 2147483648) hf) by (split; [intros x Hx; specialize (HB1 x Hx); lia|lia]).
  destruct o as [t|t n]; cbn [rc_h rc_abs rc_temp Heap.step] in *; set (p := ptr_of s0 sp t) in *.
  - split; [apply erase_h_abs; [exact Hp|]; intros Hp0; destruct Hp as [|Hb]; [contradiction|]; apply IN, Hb|].
    destruct (Z.eqb_spec p 0) as [E0|E0]; [unfold erase_h; rewrite E0; cbn [Z.eqb]; split; [reflexivity|exact NULL]|].
    destruct Hp as [|Hb]; [contradiction|].
    rewrite erase_h_in64 by (pose proof (IN p Hb); lia). destruct hf as [h f]. cbn [fst snd] in *.
    destruct (Z.eqb_spec p 0) as [|_]; [contradiction|].
    assert (Pl : p <= LIMIT) by (destruct Hb as (k & Hk & -> & Hh); unfold X86HeapDefs.LIMIT; lia).
    pose proof (is_blk_pos p Hb) as Pp. pose proof (HB1 p Hb).
    destruct (hget h p =? 0); [apply (set_hdr_bound B h f p p f Hb HB); lia|].
    rewrite WR by lia. apply (set_hdr_bound B h f f p _ Hb HB); lia.
  - split; [apply share_h_abs; [exact Hp|]; intros Hp0; destruct Hp as [|Hb]; [contradiction|]; apply WR; specialize (HB1 p Hb); lia|].
    destruct hf as [h f]. unfold share_h. cbn [fst snd] in *.
    destruct (Z.eqb_spec p 0) as [E0|E0]; [split; [reflexivity|exact NULL]|].
    destruct Hp as [|Hb]; [contradiction|]. pose proof (HB1 p Hb).
    rewrite WR by lia. apply (set_hdr_bound B h f f p _ Hb HB); lia.
Qed.

Lemma rc_abs_opnd s0 sp o : rc_good s0 sp o ->
  match rc_abs s0 sp o with Heap.OShare p _ | Heap.OErase p => p = 0 \/ is_blk p | _ => False end.
Proof. intros [Hp _]. destruct o; cbn [rc_abs rc_temp] in *; exact Hp. Qed.

Theorem rc_fold_abs F H s0 sp : forall ops hf B,
  Forall (rc_good s0 sp) ops -> hb2 B hf -> LIMIT <= B ->
  B + Z.of_nat (List.length ops) * 2147483648 <= 4611686018427387904 ->
  let hf' := fold_left (fun hf o => rc_h s0 sp o hf) ops hf in
  st_eqB (absH F H hf') (hrun (map (rc_abs s0 sp) ops) (absH F H hf)) /\
  (forall a, ~ is_blk a -> hget (fst hf') a = hget (fst hf) a) /\
  0 <= snd hf'.
Proof.
  induction ops as [|o ops IH]; intros hf B HG HB HL HS; cbn [fold_left map List.length] in *.
  - split; [apply X86Mem.st_eqB_refl|]. split; [auto|]. destruct HB as [_ X]. lia.
  - inversion HG as [|? ? Ho HG']; subst.
    destruct (rc_step_abs F H s0 sp o hf B Ho HB HL ltac:(lia)) as (E1 & N1 & B1).
    destruct (IH (rc_h s0 sp o hf) (B + 2147483648) HG' B1 ltac:(lia) ltac:(lia)) as (E2 & N2 & P2).
    split; [|split; [|exact P2]].
    + eapply X86Mem.st_eqB_trans; [exact E2|]. unfold hrun at 2. cbn [fold_left]. fold (hrun (map (rc_abs s0 sp) ops)).
      apply hrun_eqB; [exact E1|]. apply Forall_forall. intros x Hx. apply in_map_iff in Hx as (o' & <- & Ho').
      apply rc_abs_opnd. rewrite Forall_forall in HG'. now apply HG'.
    + intros a Ha. rewrite N2 by exact Ha. now apply N1.
Qed.
