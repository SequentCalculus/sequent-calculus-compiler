(* Proof/CoreTyRules.v (C12) - the checker Sem/CoreCheck.v read as typing rules.
   One equivalence per constructor (`ccheck_* ... = None <-> premises`), with the nested list
   traversals (xtor/call arguments, clauses) expressed by Forall2 / Forall.  Used in both directions:
   to BUILD derivations (the translation fun2core produces well-typed Core) and to INVERT them
   (uniquify / focus consume a well-typed program). *)
From Coq Require Import List ZArith NArith String Bool Lia.
From SCC Require Import Proof.CoreInd.
From SCC Require Import Base.Sexp Lang.SynUtil Lang.CoreSyn Sem.FsCheck Sem.CoreCheck.
Import ListNotations.
Open Scope list_scope.

Lemma ceq_chi : forall a b, cchi_eqb a b = true <-> a = b.
Proof. intros [|] [|]; simpl; split; congruence. Qed.
Lemma ceq_ty : forall a b, cty_eqb a b = true <-> a = b.
Proof.
  intros [|x] [|y]; simpl; try (split; congruence).
  rewrite cident_eqb_eq. split; congruence.
Qed.
Lemma ceq_ty_refl : forall a, cty_eqb a a = true.
Proof. intros a. apply ceq_ty. reflexivity. Qed.
Lemma ceq_chi_refl : forall a, cchi_eqb a a = true.
Proof. intros [|]; reflexivity. Qed.

Lemma seqn {X} (a b : option X) : match a with None => b | Some e => Some e end = None <-> a = None /\ b = None.
Proof.
  destruct a; split.
  - discriminate.
  - intros [H _]; discriminate.
  - auto.
  - intros [_ H]; exact H.
Qed.
Lemma fens (b : bool) m : fensure b m = None <-> b = true.
Proof. destruct b; simpl; split; congruence. Qed.

(* A chain `a ?> b ?> ...` of checks passes iff every link does.  The rules below split the chain
   with [seq_iff] link by link (rewriting under <-> in goals that carry the messages is slow to check). *)
Lemma seq_iff {X} (a b : option X) (P Q : Prop) :
  (a = None <-> P) -> (b = None <-> Q) -> (match a with None => b | Some e => Some e end = None <-> P /\ Q).
Proof. intros <- <-. apply seqn. Qed.
Lemma fens_chi a b m : fensure (cchi_eqb a b) m = None <-> a = b.
Proof. rewrite fens. apply ceq_chi. Qed.
Lemma fens_ty a b m : fensure (cty_eqb a b) m = None <-> a = b.
Proof. rewrite fens. apply ceq_ty. Qed.

Lemma clookup_var : forall G x b, clookup G x = Some b -> cbvar b = x.
Proof.
  induction G as [|b0 r IH]; simpl; intros x b H; [discriminate|].
  destruct (cident_eqb (cbvar b0) x) eqn:E; [|apply IH; exact H].
  injection H as H. subst. apply cident_eqb_eq. exact E.
Qed.
Lemma clookup_In : forall G x b, clookup G x = Some b -> In b G.
Proof.
  induction G as [|b0 r IH]; simpl; intros x b H; [discriminate|].
  destruct (cident_eqb (cbvar b0) x); [injection H as H; left; exact H | right; eapply IH; exact H].
Qed.
Lemma clookup_cons : forall b0 G x,
  clookup (b0 :: G) x = if cident_eqb (cbvar b0) x then Some b0 else clookup G x.
Proof. reflexivity. Qed.
Lemma clookup_app : forall A G x,
  clookup (A ++ G) x = match clookup A x with Some b => Some b | None => clookup G x end.
Proof.
  induction A as [|b0 r IH]; simpl; intros G x; [reflexivity|].
  destruct (cident_eqb (cbvar b0) x); [reflexivity | apply IH].
Qed.
Lemma clookup_none : forall G x, clookup G x = None <-> ~ In x (cvars G).
Proof.
  induction G as [|b0 r IH]; simpl; intros x; [tauto|].
  destruct (cident_eqb (cbvar b0) x) eqn:E.
  - apply cident_eqb_eq in E. split; [discriminate | intros H; exfalso; apply H; left; exact E].
  - apply cident_eqb_neq in E. rewrite IH. tauto.
Qed.
Lemma clookup_nodup : forall G b, NoDup (cvars G) -> In b G -> clookup G (cbvar b) = Some b.
Proof.
  induction G as [|b0 r IH]; simpl; intros b Hnd Hin; [contradiction|].
  inversion Hnd as [|? ? Hn Hnd']; subst.
  destruct Hin as [->|Hin]; [rewrite cident_eqb_refl; reflexivity|].
  destruct (cident_eqb (cbvar b0) (cbvar b)) eqn:E; [|apply IH; assumption].
  apply cident_eqb_eq in E. exfalso. apply Hn. rewrite E. apply in_map. exact Hin.
Qed.

Lemma cbound_iff : forall G x c t, cbound G x c t = None <-> clookup G x = Some (mkcb x c t).
Proof.
  intros G x c t. unfold cbound. destruct (clookup G x) as [b|] eqn:E.
  - rewrite fens, andb_true_iff, ceq_chi, ceq_ty. pose proof (clookup_var _ _ _ E) as Hv.
    destruct b as [v c' t']; simpl in *. subst v. split.
    + intros [-> ->]. reflexivity.
    + intros H. injection H as -> ->. auto.
  - split; discriminate.
Qed.

Lemma nodup_by_NoDup : forall (l : list cident), nodup_by cident_eqb l = true <-> NoDup l.
Proof.
  induction l as [|x r IH]; simpl; [split; [constructor | reflexivity]|].
  rewrite andb_true_iff, IH, negb_true_iff. split.
  - intros [H1 H2]. constructor; [|exact H2]. intros Hin.
    assert (existsb (cident_eqb x) r = true) by (apply existsb_exists; exists x; split; [exact Hin | apply cident_eqb_refl]).
    congruence.
  - intros H. inversion H as [|? ? Hn Hnd]; subst. split; [|exact Hnd].
    destruct (existsb (cident_eqb x) r) eqn:E; [|reflexivity].
    apply existsb_exists in E. destruct E as [y [Hy Ey]]. apply cident_eqb_eq in Ey. subst y. contradiction.
Qed.

Lemma cclauses_match_cons : forall side n c' x ctx body cr sg xr,
  cclauses_match side n (CClause c' x ctx body :: cr) (sg :: xr) = None <->
  c' = side /\ x = cxname sg /\ fparams_ok ctx (cxargs sg) = true /\ NoDup (cvars ctx) /\ cclauses_match side n cr xr = None.
Proof.
  intros. cbn [cclauses_match]. apply seq_iff; [apply fens_chi|]. apply seq_iff; [rewrite fens; apply cident_eqb_eq|].
  apply seq_iff; [apply fens|]. apply seq_iff; [rewrite fens; apply nodup_by_NoDup | reflexivity].
Qed.

Section Rules.
Variables (data codata : list ctydecl) (defs : list cdef).
Notation ct := (ccheck_term data codata defs).
Notation cs := (ccheck_stmt data codata defs).

Definition arg_typed (G : cctx) (a : carg) (s : cbinding) : Prop :=
  match a, cbchi s with
  | CProducer p, CPrd => ct G CPrd (cbty s) p = None
  | CConsumer k, CCns => ct G CCns (cbty s) k = None
  | _, _ => False
  end.
Definition args_typed (G : cctx) : list carg -> cctx -> Prop := Forall2 (arg_typed G).
Definition clause_typed (G : cctx) (cl : cclause) : Prop :=
  match cl with CClause _ _ ctx body => cs (ctx ++ G) body = None end.

(* the argument loop of xtors and calls (the two copies differ in their messages only) *)
Definition cargs_loop (m1 : cbinding -> string) (m2 : string) (G : cctx) : list carg -> cctx -> option string :=
  fix go (args : list carg) (sig : cctx) {struct args} : option string :=
    match args, sig with
    | [], [] => None
    | a :: ar, s :: sr =>
        match
          match a, cbchi s with
          | CProducer p, CPrd => ct G CPrd (cbty s) p
          | CConsumer k, CCns => ct G CCns (cbty s) k
          | _, _ => Some (m1 s)
          end
        with None => go ar sr | Some e => Some e end
    | _, _ => Some m2
    end.
Lemma cargs_loop_iff : forall m1 m2 G args sig, cargs_loop m1 m2 G args sig = None <-> args_typed G args sig.
Proof.
  intros m1 m2 G. induction args as [|a ar IH]; intros [|s sr]; simpl.
  - split; [constructor | reflexivity].
  - split; [discriminate | intros H; inversion H].
  - split; [discriminate | intros H; inversion H].
  - rewrite seqn, IH. split.
    + intros [H1 H2]. constructor; [|exact H2]. unfold arg_typed.
      destruct a, (cbchi s); try discriminate; exact H1.
    + intros H. inversion H as [|? ? ? ? Ha Hr]; subst. split; [|exact Hr].
      unfold arg_typed in Ha. destruct a, (cbchi s); try contradiction; exact Ha.
Qed.

Lemma args_typed_forallb : forall (f : carg -> bool) G args sig,
  Forall (fun a => forall G s, arg_typed G a s -> f a = true) args -> args_typed G args sig -> forallb f args = true.
Proof.
  intros f G args sig F H. induction H as [|a s ar sr Ha _ IH]; [reflexivity|].
  inversion F as [|? ? Fa Fr]; subst. cbn [forallb]. rewrite (Fa _ _ Ha), (IH Fr). reflexivity.
Qed.

Definition cclauses_loop (G : cctx) : list cclause -> option string :=
  fix go (cls : list cclause) {struct cls} : option string :=
    match cls with
    | [] => None
    | CClause _ _ ctx body :: cr => match cs (ctx ++ G) body with None => go cr | Some e => Some e end
    end.
Lemma cclauses_loop_iff : forall G cls, cclauses_loop G cls = None <-> Forall (clause_typed G) cls.
Proof.
  intros G. induction cls as [|[c x ctx body] cr IH]; simpl.
  - split; [constructor | reflexivity].
  - rewrite seqn, IH. split.
    + intros [H1 H2]. constructor; assumption.
    + intros H. inversion H; subst. split; assumption.
Qed.

(* cbn leaves the calls into the other function of the mutual block as anonymous fixpoints inside
   the argument and clause loops; folding them back keeps the goals (and the proof terms) small. *)
Ltac step_check :=
  cbn [ccheck_term ccheck_stmt]; fold (ccheck_term data codata defs); fold (ccheck_stmt data codata defs).
Lemma ct_var : forall G side ty c v t',
  ct G side ty (CXVar c v t') = None <-> c = side /\ t' = ty /\ clookup G v = Some (mkcb v side ty).
Proof.
  intros. step_check. apply seq_iff; [apply fens_chi|]. apply seq_iff; [apply fens_ty | apply cbound_iff].
Qed.
Lemma ct_lit : forall G side ty n, ct G side ty (CLit n) = None <-> side = CPrd /\ ty = CI64.
Proof. intros. step_check. apply seq_iff; [apply fens_chi | apply fens_ty]. Qed.
Lemma ct_op : forall G side ty a o b,
  ct G side ty (COp a o b) = None <->
  side = CPrd /\ ty = CI64 /\ ct G CPrd CI64 a = None /\ ct G CPrd CI64 b = None.
Proof.
  intros. step_check. apply seq_iff; [apply fens_chi|]. apply seq_iff; [apply fens_ty|].
  apply seq_iff; reflexivity.
Qed.
Lemma ct_mu : forall G side ty c v s t',
  ct G side ty (CMu c v s t') = None <-> c = side /\ t' = ty /\ cs (mkcb v (opp side) ty :: G) s = None.
Proof.
  intros. step_check. apply seq_iff; [apply fens_chi|]. apply seq_iff; [apply fens_ty | reflexivity].
Qed.

Definition xdecls (side : cchi) : list ctydecl := match side with CPrd => data | CCns => codata end.
Definition cdecls (side : cchi) : list ctydecl := match side with CPrd => codata | CCns => data end.

Lemma ct_xtor : forall G side ty c x args t',
  ct G side ty (CXtor c x args t') = None <->
  c = side /\ t' = ty /\
  exists n d sg, ty = CDecl n /\ find_decl (xdecls side) n = Some d /\ find_cxtor d x = Some sg /\
                 args_typed G args (cxargs sg).
Proof.
  intros. step_check. apply seq_iff; [apply fens_chi|]. apply seq_iff; [apply fens_ty|].
  fold (xdecls side). split.
  - intros H. destruct ty as [|n]; [discriminate|].
    destruct (find_decl (xdecls side) n) as [d|] eqn:Ed; [|discriminate].
    destruct (find_cxtor d x) as [sg|] eqn:Es; [|discriminate].
    exists n, d, sg. repeat split; [exact Ed | exact Es |].
    eapply (cargs_loop_iff (fun s => _) _). exact H.
  - intros [n [d [sg [-> [-> [-> Ha]]]]]].
    eapply (cargs_loop_iff (fun s => _) _). exact Ha.
Qed.

Lemma ct_xcase : forall G side ty c cls t',
  ct G side ty (CXCase c cls t') = None <->
  c = side /\ t' = ty /\
  exists n d, ty = CDecl n /\ find_decl (cdecls side) n = Some d /\
              cclauses_match side n cls (ctxtors d) = None /\ Forall (clause_typed G) cls.
Proof.
  intros. step_check. apply seq_iff; [apply fens_chi|]. apply seq_iff; [apply fens_ty|].
  fold (cdecls side). split.
  - intros H. destruct ty as [|n]; [discriminate|].
    destruct (find_decl (cdecls side) n) as [d|] eqn:Ed; [|discriminate].
    apply seqn in H. destruct H as [Hm Hc].
    exists n, d. repeat split; [exact Ed | exact Hm |]. apply cclauses_loop_iff. exact Hc.
  - intros [n [d [-> [-> [Hm Hc]]]]]. apply seqn. split; [exact Hm|]. apply cclauses_loop_iff. exact Hc.
Qed.

Lemma cs_cut : forall G p ty k,
  cs G (CCut p ty k) = None <-> cty_ok data codata ty = true /\ ct G CPrd ty p = None /\ ct G CCns ty k = None.
Proof. intros. step_check. apply seq_iff; [apply fens|]. apply seq_iff; reflexivity. Qed.
Lemma cs_ifc : forall G so a b t e,
  cs G (CIfC so a b t e) = None <->
  ct G CPrd CI64 a = None /\ match b with Some b' => ct G CPrd CI64 b' = None | None => True end /\
  cs G t = None /\ cs G e = None.
Proof.
  intros. step_check. apply seq_iff; [reflexivity|]. apply seq_iff; [|apply seq_iff; reflexivity].
  destruct b; [reflexivity | split; trivial].
Qed.
Lemma cs_print : forall G nl a next,
  cs G (CPrint nl a next) = None <-> ct G CPrd CI64 a = None /\ cs G next = None.
Proof. intros. step_check. apply seq_iff; reflexivity. Qed.
Lemma cs_call : forall G f args ty,
  cs G (CCall f args ty) = None <->
  cty_ok data codata ty = true /\
  exists d, find (fun d => cident_eqb (cdname d) f) defs = Some d /\ args_typed G args (cdctx d).
Proof.
  intros. step_check. apply seq_iff; [apply fens|]. split.
  - intros H. destruct (find (fun d => cident_eqb (cdname d) f) defs) as [d|]; [|discriminate].
    exists d. split; [reflexivity|]. eapply (cargs_loop_iff (fun s => _) _). exact H.
  - intros [d [-> Ha]]. eapply (cargs_loop_iff (fun s => _) _). exact Ha.
Qed.
Lemma cs_exit : forall G a ty,
  cs G (CExit a ty) = None <-> cty_ok data codata ty = true /\ ct G CPrd CI64 a = None.
Proof. intros. step_check. apply seq_iff; [apply fens | reflexivity]. Qed.

End Rules.

Definition cdef_typed (p : cprog) (d : cdef) : Prop :=
  NoDup (cvars (cdctx d)) /\ forallb (fun b => ty_ok (cpdata p) (cpcodata p) (cbty b)) (cdctx d) = true /\
  ccheck_stmt (cpdata p) (cpcodata p) (cpdefs p) (cdctx d) (cdbody d) = None.
Lemma ccheck_defs_iff p l : ccheck_defs p l = None <-> Forall (cdef_typed p) l.
Proof.
  induction l as [|d r IH]; cbn [ccheck_defs]; [split; [constructor | reflexivity]|].
  rewrite Forall_cons_iff, <- IH. unfold cdef_typed. rewrite !and_assoc.
  apply seq_iff; [rewrite fens; apply nodup_by_NoDup|]. apply seq_iff; [apply fens|].
  destruct (ccheck_stmt _ _ _ (cdctx d) (cdbody d)).
  - split; [discriminate | intros [H _]; discriminate].
  - split; [intros H; split; [reflexivity | exact H] | intros [_ H]; exact H].
Qed.
Lemma check_core_iff p :
  check_core p = None <->
  let ts := cpdata p ++ cpcodata p in
  chi_ok_cprog p = true /\ nodup_by cident_eqb (map ctname ts) = true /\
  negb (existsb (fun t => cident_eqb (ctname t) cont_name_fs) ts) = true /\
  forallb (fun t => nodup_by cident_eqb (map cxname (ctxtors t))) ts = true /\
  nodup_by cident_eqb (map cdname (cpdefs p)) = true /\ ccheck_defs p (cpdefs p) = None.
Proof. unfold check_core. cbv zeta. repeat (apply seq_iff; [apply fens|]). reflexivity. Qed.
Lemma wt_core_iff p : wt_core p = true <-> check_core p = None.
Proof. unfold wt_core. destruct (check_core p); split; congruence. Qed.
