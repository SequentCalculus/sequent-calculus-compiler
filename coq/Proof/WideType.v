(* A type declaration with n destructors d0 .. d(n-1), as the regressions of the table dispatch use it
   (Proof/RVWfCor.v), with the numbers counted in binary: evaluating `N.of_nat k` for every k is quadratic
   without the VM. *)
From Coq Require Import List NArith String.
From SCC Require Import Base.Sexp Lang.AxSyn.
Import ListNotations.

Fixpoint xtors_from (i : N) (k : nat) : list xtorsig :=
  match k with O => [] | S k' => mkx ("d"%string, i) [] :: xtors_from (N.succ i) k' end.

Lemma xtors_from_seq n : map (fun k => mkx ("d"%string, N.of_nat k) []) (seq 0 n) = xtors_from 0 n.
Proof.
  change 0%N with (N.of_nat 0). generalize 0%nat.
  induction n as [|n IH]; intros a; cbn [seq map xtors_from]; [reflexivity|].
  rewrite IH, Nnat.Nat2N.inj_succ. reflexivity.
Qed.
