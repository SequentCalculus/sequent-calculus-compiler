(* C03, uniquify preserves behaviour: programs.
   [uniquify_preserves]: run_core fuel (uniquify p) args = run_core fuel p args for EVERY fuel and
   argument tuple (equal observations, stuck and out-of-fuel runs included), for programs whose
   identifiers are <= max_id, of the shape focus_wf, and chirality-consistently scoped ([cs_prog]). *)
From Coq Require Import List ZArith NArith String Bool Lia.
From SCC Require Import Base.Sexp Lang.CoreSyn Sem.AxSem Sem.CoreSem Model.Backend Model.Uniquify Model.FocusCheck
     Proof.CoreInd Proof.SubstProof Proof.UniquifyProof Proof.FocusExtra Proof.FocusKont
     Proof.UqSubst Proof.UqAeq Proof.UqProof Proof.UqMain Proof.UqSim.
From SCC Require Import Model.FocusGuard.
Import ListNotations.
Open Scope list_scope.
Open Scope N_scope.

Definition def_rel (d d1 : cdef) : Prop :=
  cdname d1 = cdname d /\ ctx_like (cdctx d) (cdctx d1) /\
  aeq_s (gzip (cdctx d) (cdctx d1)) (cdbody d) (cdbody d1).

Lemma J_empty : J [] [] [].
Proof. split; [intros k t []|]. split; [intros k t []|]. intros x c _. destruct c; reflexivity. Qed.

Lemma uq_def_aeq : forall d m d1 m1 T,
  uq_def d m = Ok (d1, m1) -> wf_stmt (cdbody d) = true -> ids_le_def T d = true -> T <= m -> cs_def d = true ->
  def_rel d d1 /\ m <= m1.
Proof.
  intros d m d1 m1 T U W I L SC. unfold uq_def in U. rewrite uq_context_uqc in U.
  destruct (uqc (cdctx d) m) as [[[ctx' vs] cs] m0] eqn:UC.
  rb U body1 E1. rb2 U body2 m2 E2. okinv U.
  unfold ids_le_def in I. apply andb_true_iff in I. destruct I as [I1 I2].
  destruct (uqc_spec _ _ _ _ _ _ UC) as (L0 & CL & _).
  assert (ID : subst_stmt (cdbody d) [] [] = Ok (cdbody d)) by (apply subst_not_free_stmt; [exact W | intros k []]).
  pose proof (compose_ctx (cdbody d) [] [] (cdctx d) m ctx' vs cs m0 (cdbody d) body1
                (fun k t (x : In (k, t) []) => match x with end) (fun k t (x : In (k, t) []) => match x with end) UC ID E1) as CMP.
  simpl in CMP.
  pose proof (J_ctx [] [] [] _ _ _ _ _ _ J_empty UC) as HJ. simpl in HJ.
  pose proof (uqc_GOK _ _ _ _ _ _ T [] UC (GOK_nil T m) L I1) as K.
  assert (SC' : cs_stmt (gsrc (gzip (cdctx d) ctx' ++ [])) (cdbody d) = true).
  { rewrite app_nil_r, gsrc_gzip; [exact SC | apply ctx_like_length; exact CL]. }
  destruct (proj2 (proj2 (uq_aeq_all (uq_fuel body1))) _ _ _ _ _ _ _ _ _ CMP E2 HJ K ltac:(lia) I2 SC') as [A L1].
  rewrite app_nil_r in A.
  split; [|lia]. split; [reflexivity|]. split; assumption.
Qed.

Lemma uq_defs_aeq : forall ds m ds1 m1 T,
  maprs uq_def ds m = Ok (ds1, m1) -> forallb (fun d => wf_stmt (cdbody d)) ds = true ->
  forallb (ids_le_def T) ds = true -> T <= m -> forallb cs_def ds = true ->
  Forall2 def_rel ds ds1.
Proof.
  induction ds as [|d r IH]; intros m ds1 m1 T U W I L SC; simpl in U.
  - okinv U. constructor.
  - rb2 U d1 m2 E1. rb2 U r1 m3 E2. okinv U. simpl in W, I, SC.
    apply andb_true_iff in W. destruct W as [W1 W2]. apply andb_true_iff in I. destruct I as [I1 I2].
    apply andb_true_iff in SC. destruct SC as [S1 S2].
    destruct (uq_def_aeq _ _ _ _ _ E1 W1 I1 L S1) as [R1 L1].
    constructor; [exact R1|]. eapply IH; eauto. lia.
Qed.

Lemma defs_find : forall ds ds1 f, Forall2 def_rel ds ds1 ->
  match find (fun d => cident_eqb (cdname d) f) ds, find (fun d => cident_eqb (cdname d) f) ds1 with
  | Some d, Some d1 => ctx_like (cdctx d) (cdctx d1) /\ aeq_s (gzip (cdctx d) (cdctx d1)) (cdbody d) (cdbody d1)
  | None, None => True
  | _, _ => False
  end.
Proof.
  induction 1 as [|d d1 r r1 (N & CL & A) HR IH]; simpl; [exact I|].
  rewrite N. destruct (cident_eqb (cdname d) f); [split; assumption | exact IH].
Qed.

Lemma UVs_ints : forall zs : list Z, UVs (map (fun z => BP (PInt z)) zs) (map (fun z => BP (PInt z)) zs).
Proof. induction zs; simpl; constructor; auto. constructor. Qed.

Lemma ctx_like_chi : forall ctx ctx', ctx_like ctx ctx' ->
  forallb (fun b => match cbchi b with CPrd => true | CCns => false end) ctx' =
  forallb (fun b => match cbchi b with CPrd => true | CCns => false end) ctx.
Proof. induction 1 as [|b b' r r' [E _] HR IH]; simpl; [reflexivity|]. rewrite E, IH. reflexivity. Qed.

Theorem uniquify_preserves : forall p p1,
  uniquify_prog p = Ok p1 -> focus_wf p = true -> forallb (ids_le_def (cpmax p)) (cpdefs p) = true ->
  cs_prog p = true ->
  forall fuel args, run_core fuel p1 args = run_core fuel p args.
Proof.
  intros p p1 U W I SC fuel args. unfold uniquify_prog in U. rb2 U ds m E. okinv U.
  pose proof (uq_defs_aeq _ _ _ _ _ E W I (N.le_refl _) SC) as DR.
  set (p1 := mkcp ds (cpdata p) (cpcodata p) m).
  assert (Hcod : forall ty, is_codata p1 ty = is_codata p ty) by reflexivity.
  assert (Hdefs : forall f,
            match cfind_def p f, cfind_def p1 f with
            | Some d, Some d1 => ctx_like (cdctx d) (cdctx d1) /\ aeq_s (gzip (cdctx d) (cdctx d1)) (cdbody d) (cdbody d1)
            | None, None => True
            | _, _ => False
            end).
  { intros f. unfold cfind_def. simpl. apply defs_find. exact DR. }
  unfold run_core. simpl.
  destruct DR as [|d d1 r r1 (N & CL & A) HR]; [reflexivity|].
  unfold centry_env. rewrite (ctx_like_chi _ _ CL).
  destruct (forallb (fun b => match cbchi b with CPrd => true | CCns => false end) (cdctx d)); [|reflexivity].
  pose proof (u_cbind _ _ _ _ _ _ _ CL (UVs_ints args) UE_nil) as B. rewrite app_nil_r in B.
  destruct (cbind (cvars (cdctx d)) (map (fun z => BP (PInt z)) args) []),
           (cbind (cvars (cdctx d1)) (map (fun z => BP (PInt z)) args) []); try contradiction; [|reflexivity].
  apply (u_crun p p1 Hcod Hdefs). econstructor; eauto.
Qed.
