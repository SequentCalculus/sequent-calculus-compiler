(* C15: witness programs for the two repaired defects of the checker, by computation.
   - instance order: [p_instance_order] is well typed; the checker before fix d524b1f ([check_before_fix]) rejected it with
     Undefined and accepted the same definitions in another order ([p_instance_order_fixed]: the order in which the
     instance exists when it is needed), [check] accepts every order;
   - declaration types ([p_decl_type_args], [p_decl_unknown_type], [p_param_applied]): ill typed, rejected by [check],
     accepted by the checker before fix eb42971 ([old_check_decls]), which therefore was unsound.
   The same programs are in corpus/fun/c15-*.sc. *)
From Coq Require Import List ZArith String Bool Permutation.
From SCC Require Import Lang.FunSyn Model.Check Sem.FunTyping.
Import ListNotations.
Open Scope string_scope.

(* corpus/fun/c15-wt-instance-order.sc:
     data Bar { MkBar }   codata Foo { get : Bar }   def f(): Foo { new { get => MkBar } } *)
Definition p_instance_order : fprog :=
  mkfprog [FDData (mkfdata "Bar" [] [mkfctor "MkBar" []]);
           FDCodata (mkfcodata "Foo" [] [mkfdtor "get" [] (FDecl "Bar" [])]);
           FDDef (mkfdef "f" [] (FDecl "Foo" [])
                    (FNew [FClause FCodata "get" [] [] (FCtor "MkBar" [] None)] None))].
(* corpus/fun/c15-wt-instance-order-reordered.sc: the same with  def g(x: Bar): i64 { 0 }  before f *)
Definition p_instance_order_fixed : fprog :=
  mkfprog [FDData (mkfdata "Bar" [] [mkfctor "MkBar" []]);
           FDCodata (mkfcodata "Foo" [] [mkfdtor "get" [] (FDecl "Bar" [])]);
           FDDef (mkfdef "g" [mkfb "x" FPrd (FDecl "Bar" [])] FI64 (FLit 0));
           FDDef (mkfdef "f" [] (FDecl "Foo" [])
                    (FNew [FClause FCodata "get" [] [] (FCtor "MkBar" [] None)] None))].
(* ... and with g AFTER f: rejected again before the fix - acceptance depended on the order *)
Definition p_instance_order_late : fprog :=
  mkfprog [FDData (mkfdata "Bar" [] [mkfctor "MkBar" []]);
           FDCodata (mkfcodata "Foo" [] [mkfdtor "get" [] (FDecl "Bar" [])]);
           FDDef (mkfdef "f" [] (FDecl "Foo" [])
                    (FNew [FClause FCodata "get" [] [] (FCtor "MkBar" [] None)] None));
           FDDef (mkfdef "g" [mkfb "x" FPrd (FDecl "Bar" [])] FI64 (FLit 0))].

Lemma instance_order_well_typed : has_type_b p_instance_order = true.
Proof. vm_compute. reflexivity. Qed.
(* the checker as it is accepts all three *)
Lemma instance_order_accepted : exists q, check p_instance_order = COk q.
Proof. eexists. vm_compute. reflexivity. Qed.
Lemma instance_order_fixed_accepted : exists q, check p_instance_order_fixed = COk q.
Proof. eexists. vm_compute. reflexivity. Qed.
Lemma instance_order_late_accepted : exists q, check p_instance_order_late = COk q.
Proof. eexists. vm_compute. reflexivity. Qed.
(* before the fix: rejected, and dependent on the order of the definitions *)
Lemma instance_order_rejected_before_fix : check_before_fix p_instance_order = CErr EUndefined.
Proof. vm_compute. reflexivity. Qed.
Lemma instance_order_fixed_accepted_before_fix : exists q, check_before_fix p_instance_order_fixed = COk q.
Proof. eexists. vm_compute. reflexivity. Qed.
Lemma instance_order_late_rejected_before_fix :
  has_type_b p_instance_order_late = true /\ check_before_fix p_instance_order_late = CErr EUndefined.
Proof. split; vm_compute; reflexivity. Qed.

(* corpus/fun/c15-ill-accepted-decl-type-args.sc:
     data List[A] { Nil, Cons(x: A, xs: List[A]) }   data Foo { C(x: List) }   def main(): i64 { 0 } *)
Definition p_decl_type_args : fprog :=
  mkfprog [FDData (mkfdata "List" ["A"] [mkfctor "Nil" [];
                                         mkfctor "Cons" [mkfb "x" FPrd (FDecl "A" []);
                                                         mkfb "xs" FPrd (FDecl "List" [FDecl "A" []])]]);
           FDData (mkfdata "Foo" [] [mkfctor "C" [mkfb "x" FPrd (FDecl "List" [])]]);
           FDDef (mkfdef "main" [] FI64 (FLit 0))].
Lemma decl_type_args_ill_typed : has_type_b p_decl_type_args = false.
Proof. vm_compute. reflexivity. Qed.
(* rejected since fix eb42971; accepted by the code before it *)
Lemma decl_type_args_rejected : check p_decl_type_args = CErr EWrongNumberOfTypeArguments.
Proof. vm_compute. reflexivity. Qed.
Lemma decl_type_args_accepted_before_fix : exists q, old_check_decls p_decl_type_args = COk q.
Proof. eexists. vm_compute. reflexivity. Qed.

(* corpus/fun/c15-ill-accepted-decl-unknown-type.sc *)
Definition p_decl_unknown_type : fprog :=
  mkfprog [FDData (mkfdata "List" ["A"] [mkfctor "Nil" [];
                                         mkfctor "Cons" [mkfb "x" FPrd (FDecl "A" []);
                                                         mkfb "xs" FPrd (FDecl "List" [FDecl "NoSuchType" []])]]);
           FDDef (mkfdef "isEmpty" [mkfb "l" FPrd (FDecl "List" [FI64])] FI64
                    (FCase (FVar "l" None None) [FI64]
                       [FClause FData "Nil" [] [] (FLit 1); FClause FData "Cons" ["x"; "xs"] [] (FLit 0)] None));
           FDDef (mkfdef "main" [] FI64 (FCall "isEmpty" [FCtor "Nil" [] None] None))].
Lemma decl_unknown_type_ill_typed : has_type_b p_decl_unknown_type = false.
Proof. vm_compute. reflexivity. Qed.
Lemma decl_unknown_type_rejected : check p_decl_unknown_type = CErr EUndefined.
Proof. vm_compute. reflexivity. Qed.
Lemma decl_unknown_type_accepted_before_fix : exists q, old_check_decls p_decl_unknown_type = COk q.
Proof. eexists. vm_compute. reflexivity. Qed.

(* corpus/fun/c15-ill-accepted-param-applied.sc:  data Box[A] { B(x: A[i64, i64]) } … *)
Definition p_param_applied : fprog :=
  mkfprog [FDData (mkfdata "Box" ["A"] [mkfctor "B" [mkfb "x" FPrd (FDecl "A" [FI64; FI64])]]);
           FDDef (mkfdef "unbox" [mkfb "b" FPrd (FDecl "Box" [FI64])] FI64
                    (FCase (FVar "b" None None) [FI64] [FClause FData "B" ["x"] [] (FVar "x" None None)] None));
           FDDef (mkfdef "main" [] FI64 (FCall "unbox" [FCtor "B" [FLit 1] None] None))].
Lemma param_applied_ill_typed : has_type_b p_param_applied = false.
Proof. vm_compute. reflexivity. Qed.
Lemma param_applied_rejected : check p_param_applied = CErr EWrongNumberOfTypeArguments.
Proof. vm_compute. reflexivity. Qed.
Lemma param_applied_accepted_before_fix : exists q, old_check_decls p_param_applied = COk q.
Proof. eexists. vm_compute. reflexivity. Qed.

(* regression: soundness, full statement, was false of the checker before fix eb42971 (declaration types
   checked by head name only) *)
Lemma old_check_decls_unsound :
  ~ (forall p q, old_check_decls p = COk q -> has_type p).
Proof.
  intro H. destruct decl_type_args_accepted_before_fix as [q Hq].
  specialize (H _ _ Hq). unfold has_type in H. rewrite decl_type_args_ill_typed in H. discriminate.
Qed.
(* regression: without the line added by fix d524b1f the model is incomplete and order-dependent *)
Lemma check_before_fix_incomplete :
  ~ (forall p, has_type p -> exists q, check_before_fix p = COk q).
Proof.
  intro H. destruct (H p_instance_order instance_order_well_typed) as [q Hq].
  rewrite instance_order_rejected_before_fix in Hq. discriminate.
Qed.
Lemma check_before_fix_order_dependent :
  (exists q, check_before_fix p_instance_order_fixed = COk q) /\ check_before_fix p_instance_order_late = CErr EUndefined
  /\ Permutation (fpdecls p_instance_order_fixed) (fpdecls p_instance_order_late).
Proof.
  split; [exact instance_order_fixed_accepted_before_fix|]. split; [exact (proj2 instance_order_late_rejected_before_fix)|].
  unfold p_instance_order_fixed, p_instance_order_late; simpl.
  do 2 apply perm_skip. apply perm_swap.
Qed.
