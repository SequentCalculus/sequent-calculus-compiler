(* Proof/Fun2CoreBarendregt  -  the Barendregt condition of Model/Fun2Core.v ([barendregt]: the binders
   of a definition are pairwise distinct and distinct from its parameters) implies, for well-scoped
   definitions of the fragment, the condition [nocap] (no binder under which a continuation is placed occurs in it).
   [nocap] was the capture guard of the simulation before the repair d5d4151 of the translation; no theorem assumes it
   any more. *)
From Coq Require Import List ZArith NArith String Bool Lia Permutation.
From SCC Require Import Base.Sexp Lang.SynUtil Lang.FunSyn Lang.FunTy Lang.CoreSyn.
From SCC Require Import Sem.AxSem Sem.CoreSem Sem.FunSem Model.Fun2Core.
From SCC Require Import Proof.Fun2CoreProof Proof.Fun2CoreInv Proof.Fun2CoreProg.
Import ListNotations.
Open Scope string_scope.
Open Scope list_scope.


Section Bar.
  Variable p : fcprog.

  Lemma var_ok_scope : forall G v ty chi, var_ok G v ty chi = true -> In (new_id v) (cvars G).
  Proof.
    intros G v ty chi H. apply var_ok_inv in H. destruct H as [ty0 [_ Hg]].
    pose proof (gl_In _ _ _ Hg) as Hin. unfold cvars. apply in_map_iff. eexists. split; [|exact Hin]. reflexivity.
  Qed.

  Lemma nm_scope_args : forall G args,
    Forall (fun t => forall G x, frag p t = true -> ws G t = true -> In x (nm t) -> In x (bnd t) \/ In (new_id x) (cvars G)) args ->
    (forall y, In y args -> frag p y = true) -> forallb (ws_arg G) args = true ->
    forall z, In z (flat_map nm args) -> In z (flat_map bnd args) \/ In (new_id z) (cvars G).
  Proof.
    intros G args H. induction H as [|y l Hy Hl IH]; intros Hf Hw z Hz; simpl in Hz; [contradiction|].
    simpl in Hw. apply andb_prop in Hw. destruct Hw as [Hwy Hwl].
    simpl. rewrite in_app_iff in *. destruct Hz as [Hz|Hz].
    - assert (Hy' : In z (bnd y) \/ In (new_id z) (cvars G)).
      { pose proof (Hf y (or_introl eq_refl)) as Hfy.
        destruct y; try (apply Hy; assumption).
        destruct chi as [[|]|]; try (apply Hy; assumption).
        simpl in Hz. destruct Hz as [Hz|[]]. subst z. right. eapply var_ok_scope; eauto. }
      tauto.
    - destruct (IH (fun y0 Hy0 => Hf y0 (or_intror Hy0)) Hwl z Hz); tauto.
  Qed.
  Lemma nm_scope_cls : forall G cls,
    Forall (fun c => forall G x, frag p (clause_body c) = true -> ws G (clause_body c) = true -> In x (nm (clause_body c)) ->
                     In x (bnd (clause_body c)) \/ In (new_id x) (cvars G)) cls ->
    clauses_frag p cls = true ->
    clauses_ws G cls = true ->
    forall z, In z (flat_map cl_nm cls) ->
    In z (flat_map cl_bnd cls) \/ In (new_id z) (cvars G).
  Proof.
    intros G cls H. induction H as [|[pl x0 names ctx body] l Hy Hl IH]; intros Hfc Hwc z Hz; simpl in Hz; [contradiction|].
    simpl in Hfc, Hwc. apply andb_prop in Hfc. destruct Hfc as [Hfy Hfl]. apply andb_prop in Hwc. destruct Hwc as [Hwy Hwl].
    apply andb_prop in Hfy. destruct Hfy as [_ Hfb].
    simpl. rewrite !in_app_iff in *. destruct Hz as [[Hz|Hz]|Hz].
    - tauto.
    - simpl in Hy. destruct (Hy _ z Hfb Hwy Hz) as [Hb|Hg]; [tauto|].
      unfold cvars in Hg. rewrite map_app, in_app_iff in Hg. destruct Hg as [Hg|Hg]; [|right; exact Hg].
      destruct (in_cvars_compile_ctx _ _ Hg) as [y0 [Ey Hy0]]. apply new_id_inj in Ey. subst y0. tauto.
    - destruct (IH Hfl Hwl z Hz) as [Hb|Hg]; tauto.
  Qed.

  Lemma nm_scope : forall t G x, frag p t = true -> ws G t = true -> In x (nm t) ->
    In x (bnd t) \/ In (new_id x) (cvars G).
  Proof.
    induction t using fterm_ind'; intros G z Hf Hw Hz; simpl in Hf; try discriminate.
    - simpl in Hz. destruct Hz as [Hz|[]]. subst z. right. simpl in Hw. eapply var_ok_scope; eauto.
    - simpl in Hz. contradiction.
    - apply andb_prop in Hf. destruct Hf as [Hf1 Hf2]. simpl in Hw. apply andb_prop in Hw. destruct Hw as [Hw1 Hw2].
      simpl in Hz. simpl. rewrite in_app_iff in *. destruct Hz as [Hz|Hz].
      + destruct (IHt1 G z Hf1 Hw1 Hz); tauto.
      + destruct (IHt2 G z Hf2 Hw2 Hz); tauto.
    - apply andb_prop in Hf. destruct Hf as [Hf Hf3]. apply andb_prop in Hf. destruct Hf as [Hf Hf2].
      apply andb_prop in Hf. destruct Hf as [Hf1 Hfb].
      simpl in Hw. apply andb_prop in Hw. destruct Hw as [Hw Hw3]. apply andb_prop in Hw. destruct Hw as [Hw Hw2].
      apply andb_prop in Hw. destruct Hw as [Hw1 Hwb].
      simpl in Hz. simpl. rewrite !in_app_iff in *. destruct Hz as [Hz|[Hz|[Hz|Hz]]].
      + destruct (IHt1 G z Hf1 Hw1 Hz); tauto.
      + destruct b as [b'|]; [|contradiction]. simpl in H. destruct (H G z Hfb Hwb Hz); tauto.
      + destruct (IHt2 G z Hf2 Hw2 Hz); tauto.
      + destruct (IHt3 G z Hf3 Hw3 Hz); tauto.
    - apply andb_prop in Hf. destruct Hf as [Hf1 Hf2]. simpl in Hw. apply andb_prop in Hw. destruct Hw as [Hw1 Hw2].
      simpl in Hz. simpl. rewrite in_app_iff in *. destruct Hz as [Hz|Hz].
      + destruct (IHt1 G z Hf1 Hw1 Hz); tauto.
      + destruct (IHt2 G z Hf2 Hw2 Hz); tauto.
    - apply andb_prop in Hf. destruct Hf as [Hf1 Hf2].
      simpl in Hw. apply andb_prop in Hw. destruct Hw as [Hw1 Hw2].
      simpl in Hz. simpl. destruct Hz as [Hz|Hz]; [left; left; exact Hz|]. rewrite in_app_iff in *. destruct Hz as [Hz|Hz].
      + destruct (IHt1 G z Hf1 Hw1 Hz); tauto.
      + destruct (IHt2 _ z Hf2 Hw2 Hz) as [Hb|Hg]; [tauto|]. simpl in Hg. destruct Hg as [Hg|Hg]; [|tauto].
        apply new_id_inj in Hg. left. left. exact Hg.
    - (* call *)
      apply andb_prop in Hf. destruct Hf as [_ Hf]. simpl in Hw. simpl in Hz. simpl.
      exact (nm_scope_args G args H (args_frag p args Hf) Hw z Hz).
    - (* ctor *)
      simpl in Hw. simpl in Hz. simpl. exact (nm_scope_args G args H (dargs_frag p args Hf) Hw z Hz).
    - (* dtor *)
      apply andb_prop in Hf. destruct Hf as [Hf _]. apply andb_prop in Hf. destruct Hf as [Hfs Hfa].
      simpl in Hw. apply andb_prop in Hw. destruct Hw as [Hws Hwa].
      simpl in Hz. simpl. rewrite in_app_iff in *. destruct Hz as [Hz|Hz].
      + destruct (IHt G z Hfs Hws Hz); tauto.
      + destruct (nm_scope_args G args H (dargs_frag p args Hfa) Hwa z Hz); tauto.
    - (* case *)
      apply andb_prop in Hf. destruct Hf as [Hf Hfc]. apply andb_prop in Hf. destruct Hf as [Hfs _].
      simpl in Hw. apply andb_prop in Hw. destruct Hw as [Hws Hwc].
      simpl in Hz. simpl. rewrite in_app_iff in *. destruct Hz as [Hz|Hz].
      + destruct (IHt G z Hfs Hws Hz); tauto.
      + destruct (nm_scope_cls G cls H Hfc Hwc z Hz); tauto.
    - (* new *)
      simpl in Hw. simpl in Hz. simpl. exact (nm_scope_cls G cls H Hf Hw z Hz).
    - (* label *)
      apply andb_prop in Hf. destruct Hf as [_ Hf]. simpl in Hw. destruct ty as [ty0|]; [|discriminate].
      simpl in Hz. simpl. destruct Hz as [Hz|Hz]; [left; left; exact Hz|].
      destruct (IHt _ z Hf Hw Hz) as [Hb|Hg]; [tauto|]. simpl in Hg. destruct Hg as [Hg|Hg]; [|tauto].
      apply new_id_inj in Hg. left. left. exact Hg.
    - (* goto *)
      simpl in Hw. apply andb_prop in Hw. destruct Hw as [Hw1 Hw2]. simpl in Hz. simpl. destruct Hz as [Hz|Hz].
      + subst z. right. eapply var_ok_scope; eauto.
      + apply IHt; assumption.
    - simpl in Hw, Hz. simpl. apply IHt; assumption.
    - simpl in Hw, Hz. simpl. apply IHt; assumption.
  Qed.

  Lemma disj_intro : forall a b, (forall x, In x a -> In x b -> False) -> disj a b = true.
  Proof.
    intros a b H. unfold disj, inter_nonempty. apply negb_true_iff.
    destruct (existsb (fun x => mem x b) a) eqn:E; [|reflexivity].
    apply existsb_exists in E. destruct E as [x [Ha Hb]]. apply mem_In in Hb. exfalso. exact (H x Ha Hb).
  Qed.
  Lemma cnt_flat_map_ge : forall X (f : X -> list string) l c x, In c l -> (cnt (f c) x <= cnt (flat_map f l) x)%nat.
  Proof.
    intros X f l c x H. induction l as [|y r IH]; [contradiction|]. simpl. rewrite cnt_app.
    destruct H as [H|H]; [subst; lia | specialize (IH H); lia].
  Qed.

  Definition scope_in (G : list cbinding) (acc : list string) : Prop :=
    forall y, In y (cvars G) -> exists x, y = new_id x /\ In x acc.

  Definition bar_stmt (t : fterm) : Prop :=
    forall G acc, frag p t = true -> ws G t = true ->
    (forall x, cnt (bnd t) x + cnt acc x <= 1)%nat -> scope_in G acc -> nocap t = true.

  (* the binders of a sub-term are among those of the term: its share of "every name at most once" *)
  Ltac sub_budget Hc :=
    let x := fresh "x" in intros x; specialize (Hc x); rewrite ?cnt_cons, ?cnt_app in Hc; rewrite ?cnt_cons; lia.

  Lemma bar_args : forall G acc args, Forall bar_stmt args ->
    (forall y, In y args -> frag p y = true) -> forallb (ws_arg G) args = true ->
    (forall x, cnt (flat_map bnd args) x + cnt acc x <= 1)%nat -> scope_in G acc ->
    forallb nocap args = true.
  Proof.
    intros G acc args H. induction H as [|y l Hy Hl IH]; intros Hf Hw Hc Hs; [reflexivity|].
    simpl in Hw, Hc. apply andb_prop in Hw. destruct Hw as [Hwy Hwl].
    simpl. apply andb_true_iff. split.
    - pose proof (Hf y (or_introl eq_refl)) as Hfy.
      destruct y; try (apply (Hy G acc Hfy Hwy); [|exact Hs];
                       intros x1; specialize (Hc x1); rewrite cnt_app in Hc; lia).
      reflexivity.
    - apply IH; [intros y0 Hy0; apply Hf; right; exact Hy0 | exact Hwl | | exact Hs].
      sub_budget Hc.
  Qed.
  Lemma bar_cls : forall G acc cls, Forall (fun c => bar_stmt (clause_body c)) cls ->
    clauses_frag p cls = true ->
    clauses_ws G cls = true ->
    (forall x, cnt (flat_map cl_bnd cls) x + cnt acc x <= 1)%nat ->
    scope_in G acc ->
    forallb (fun c => match c with FClause _ _ _ _ body => nocap body end) cls = true.
  Proof.
    intros G acc cls H Hfc Hwc Hc Hs. apply forallb_forall. intros c0 Hc0. rewrite Forall_forall in H. specialize (H c0 Hc0).
    unfold clauses_frag, clauses_ws in *. rewrite forallb_forall in Hfc, Hwc. specialize (Hfc _ Hc0). specialize (Hwc _ Hc0).
    destruct c0 as [pl x0 names ctx body]. simpl in H, Hfc, Hwc.
    apply andb_prop in Hfc. destruct Hfc as [_ Hfb].
    apply (H _ (fvars ctx ++ acc) Hfb Hwc).
    - intros x. specialize (Hc x).
      match type of Hc with context [cnt (flat_map ?f cls) x] => pose proof (cnt_flat_map_ge _ f cls _ x Hc0) as C2 end.
      cbn [cl_bnd] in C2. rewrite cnt_app in C2. rewrite cnt_app. unfold fname in *. lia.
    - intros y Hy. unfold cvars in Hy. rewrite map_app, in_app_iff in Hy. destruct Hy as [Hy|Hy].
      + destruct (in_cvars_compile_ctx _ _ Hy) as [x [Ex Hx]]. exists x. split; [exact Ex | apply in_or_app; left; exact Hx].
      + destruct (Hs _ Hy) as [x [Ex Hx]]. exists x. split; [exact Ex | apply in_or_app; right; exact Hx].
  Qed.
  (* a name of the clauses that is a binder of t, where binders and acc are all distinct: impossible *)
  Lemma cls_names_dup : forall G acc cls bt x,
    clauses_frag p cls = true ->
    clauses_ws G cls = true ->
    (cnt bt x + cnt (flat_map cl_bnd cls) x + cnt acc x <= 1)%nat ->
    scope_in G acc -> In x bt -> In x (flat_map cl_nm cls) -> False.
  Proof.
    intros G acc cls bt x Hfc Hwc Hc Hs Hx1 Hx2.
    pose proof (proj1 (cnt_In _ _) Hx1) as C1. apply in_flat_map in Hx2. destruct Hx2 as [c0 [Hc0 Hx2]].
    match type of Hc with context [cnt (flat_map ?f cls) x] => pose proof (cnt_flat_map_ge _ f cls c0 x Hc0) as C2 end.
    unfold clauses_frag, clauses_ws in *. rewrite forallb_forall in Hfc, Hwc. specialize (Hfc _ Hc0). specialize (Hwc _ Hc0).
    destruct c0 as [pl x0 names ctx body]. simpl in Hx2, Hfc, Hwc. cbn [cl_bnd] in C2. rewrite cnt_app in C2.
    apply andb_prop in Hfc. destruct Hfc as [_ Hfb].
    apply in_app_or in Hx2. destruct Hx2 as [Hx2|Hx2].
    - pose proof (proj1 (cnt_In _ _) Hx2). unfold fname in *. lia.
    - destruct (nm_scope body _ x Hfb Hwc Hx2) as [Hb|Hg].
      + pose proof (proj1 (cnt_In _ _) Hb). unfold fname in *. lia.
      + unfold cvars in Hg. rewrite map_app, in_app_iff in Hg. destruct Hg as [Hg|Hg].
        * destruct (in_cvars_compile_ctx _ _ Hg) as [y [Ey Hin]]. apply new_id_inj in Ey. subst y.
          pose proof (proj1 (cnt_In _ _) Hin). unfold fname in *. lia.
        * destruct (Hs _ Hg) as [y [Ey Hy]]. apply new_id_inj in Ey. subst y. pose proof (proj1 (cnt_In _ _) Hy). unfold fname in *. lia.
  Qed.

  Lemma bar_nocap : forall t, bar_stmt t.
  Proof.
    unfold bar_stmt.
    induction t using fterm_ind'; intros G acc Hf Hw Hc Hs; simpl in Hf; try discriminate; try reflexivity.
    - apply andb_prop in Hf. destruct Hf as [Hf1 Hf2]. simpl in Hw. apply andb_prop in Hw. destruct Hw as [Hw1 Hw2].
      simpl in Hc. simpl. apply andb_true_iff. split.
      + apply (IHt1 G acc Hf1 Hw1); [|exact Hs]. sub_budget Hc.
      + apply (IHt2 G acc Hf2 Hw2); [|exact Hs]. sub_budget Hc.
    - apply andb_prop in Hf. destruct Hf as [Hf Hf3]. apply andb_prop in Hf. destruct Hf as [Hf Hf2].
      apply andb_prop in Hf. destruct Hf as [Hf1 Hfb].
      simpl in Hw. apply andb_prop in Hw. destruct Hw as [Hw Hw3]. apply andb_prop in Hw. destruct Hw as [Hw Hw2].
      apply andb_prop in Hw. destruct Hw as [Hw1 Hwb].
      simpl in Hc. simpl. rewrite !andb_true_iff. repeat split.
      + apply (IHt1 G acc Hf1 Hw1); [|exact Hs]. sub_budget Hc.
      + destruct b as [b'|]; [|reflexivity]. simpl in H. apply (H G acc Hfb Hwb); [|exact Hs].
        sub_budget Hc.
      + apply (IHt2 G acc Hf2 Hw2); [|exact Hs]. sub_budget Hc.
      + apply (IHt3 G acc Hf3 Hw3); [|exact Hs]. sub_budget Hc.
    - apply andb_prop in Hf. destruct Hf as [Hf1 Hf2]. simpl in Hw. apply andb_prop in Hw. destruct Hw as [Hw1 Hw2].
      simpl in Hc. simpl. apply andb_true_iff. split.
      + apply (IHt1 G acc Hf1 Hw1); [|exact Hs]. sub_budget Hc.
      + apply (IHt2 G acc Hf2 Hw2); [|exact Hs]. sub_budget Hc.
    - (* let *)
      apply andb_prop in Hf. destruct Hf as [Hf1 Hf2].
      simpl in Hw. apply andb_prop in Hw. destruct Hw as [Hw1 Hw2].
      simpl in Hc. simpl. rewrite !andb_true_iff. repeat split.
      + apply disj_intro. intros x Hx1 Hx2. specialize (Hc x). rewrite cnt_cons, cnt_app in Hc.
        pose proof (proj1 (cnt_In _ _) Hx1) as C1. destruct Hx2 as [Hx2|Hx2].
        * subst x. destruct (string_dec v v); [lia | congruence].
        * destruct (nm_scope t2 _ x Hf2 Hw2 Hx2) as [Hb|Hg].
          -- pose proof (proj1 (cnt_In _ _) Hb). lia.
          -- simpl in Hg. destruct Hg as [Hg|Hg].
             ++ apply new_id_inj in Hg. subst x. destruct (string_dec v v); [lia | congruence].
             ++ destruct (Hs _ Hg) as [y [Ey Hy]]. apply new_id_inj in Ey. subst y. pose proof (proj1 (cnt_In _ _) Hy). lia.
      + apply (IHt1 G acc Hf1 Hw1); [|exact Hs]. sub_budget Hc.
      + apply (IHt2 _ (v :: acc) Hf2 Hw2).
        * sub_budget Hc.
        * intros y Hy. simpl in Hy. destruct Hy as [Hy|Hy]; [exists v; split; [symmetry; exact Hy | left; reflexivity]|].
          destruct (Hs _ Hy) as [x [Ex Hx]]. exists x. split; [exact Ex | right; exact Hx].
    - (* call *)
      apply andb_prop in Hf. destruct Hf as [_ Hf]. simpl in Hw, Hc. simpl.
      exact (bar_args G acc args H (args_frag p args Hf) Hw Hc Hs).
    - (* ctor *)
      simpl in Hw, Hc. simpl. exact (bar_args G acc args H (dargs_frag p args Hf) Hw Hc Hs).
    - (* dtor *)
      apply andb_prop in Hf. destruct Hf as [Hf _]. apply andb_prop in Hf. destruct Hf as [Hfs Hfa].
      simpl in Hw. apply andb_prop in Hw. destruct Hw as [Hws Hwa].
      simpl in Hc. simpl. rewrite !andb_true_iff. repeat split.
      + apply disj_intro. intros z Hx1 Hx2. specialize (Hc z). rewrite cnt_app in Hc.
        pose proof (proj1 (cnt_In _ _) Hx1) as C1.
        destruct (nm_scope_args G args (proj2 (Forall_forall _ args) (fun a _ => nm_scope a)) (dargs_frag p args Hfa) Hwa z Hx2) as [Hb|Hg].
        * pose proof (proj1 (cnt_In _ _) Hb). lia.
        * destruct (Hs _ Hg) as [y [Ey Hy]]. apply new_id_inj in Ey. subst y. pose proof (proj1 (cnt_In _ _) Hy). lia.
      + apply (IHt G acc Hfs Hws); [|exact Hs]. sub_budget Hc.
      + eapply (bar_args G acc args H (dargs_frag p args Hfa) Hwa); [|exact Hs].
        sub_budget Hc.
    - (* case *)
      apply andb_prop in Hf. destruct Hf as [Hf Hfc]. apply andb_prop in Hf. destruct Hf as [Hfs _].
      simpl in Hw. apply andb_prop in Hw. destruct Hw as [Hws Hwc].
      change (bnd (FCase t targs cls ty)) with (bnd t ++ flat_map cl_bnd cls) in Hc. simpl. rewrite !andb_true_iff. repeat split.
      + apply disj_intro. intros x Hx1 Hx2. specialize (Hc x). rewrite cnt_app in Hc.
        eapply (cls_names_dup G acc cls (bnd t) x Hfc Hwc); eauto.
      + apply (IHt G acc Hfs Hws); [|exact Hs]. sub_budget Hc.
      + eapply (bar_cls G acc cls H Hfc Hwc); [|exact Hs].
        sub_budget Hc.
    - (* new *)
      simpl in Hw, Hc. simpl. exact (bar_cls G acc cls H Hf Hw Hc Hs).
    - (* label *)
      apply andb_prop in Hf. destruct Hf as [_ Hf]. simpl in Hw. destruct ty as [ty0|]; [|discriminate].
      simpl in Hc. simpl. apply andb_true_iff. split.
      + apply negb_true_iff. apply mem_false_not_In. intros Hin. specialize (Hc l). rewrite cnt_cons in Hc.
        pose proof (proj1 (cnt_In _ _) Hin). destruct (string_dec l l); [lia | congruence].
      + apply (IHt _ (l :: acc) Hf Hw).
        * sub_budget Hc.
        * intros y Hy. simpl in Hy. destruct Hy as [Hy|Hy]; [exists l; split; [symmetry; exact Hy | left; reflexivity]|].
          destruct (Hs _ Hy) as [x [Ex Hx]]. exists x. split; [exact Ex | right; exact Hx].
    - (* goto *)
      simpl in Hw. apply andb_prop in Hw. destruct Hw as [Hw1 Hw2]. simpl in Hc. simpl. apply andb_true_iff. split.
      + apply negb_true_iff. apply mem_false_not_In. intros Hin.
        destruct (Hs _ (var_ok_scope _ _ _ _ Hw1)) as [y [Ey Hy]]. apply new_id_inj in Ey. subst y.
        specialize (Hc l). pose proof (proj1 (cnt_In _ _) Hin). pose proof (proj1 (cnt_In _ _) Hy). lia.
      + apply (IHt G acc Hf Hw2 Hc Hs).
    - simpl in Hw, Hc. simpl. apply (IHt G acc Hf Hw Hc Hs).
    - simpl in Hw, Hc. simpl. apply (IHt G acc Hf Hw Hc Hs).
  Qed.

  (* the official guard: for a well-scoped definition of the fragment, barendregt_def implies nocap *)
  Theorem barendregt_def_nocap : forall d,
    frag p (fdbody d) = true -> ws (compile_ctx (fdctx d)) (fdbody d) = true -> barendregt_def d = true ->
    nocap (fdbody d) = true.
  Proof.
    intros d Hf Hw Hb. unfold barendregt_def in Hb. apply nodup_str_NoDup in Hb.
    apply (bar_nocap (fdbody d) (compile_ctx (fdctx d)) (fvars (fdctx d)) Hf Hw).
    - intros x. rewrite <- (used_binders_cnt p (fdbody d) (fvars (fdctx d)) x Hf).
      unfold cnt. apply (proj1 (NoDup_count_occ string_dec _) Hb).
    - exact (in_cvars_compile_ctx (fdctx d)).
  Qed.
End Bar.

Theorem barendregt_prog_guard : forall p, frag_prog p = true -> barendregt p = true -> prog_guard p = true.
Proof.
  intros p Hf Hb. unfold prog_guard, frag_prog, barendregt in *.
  rewrite forallb_forall in *.
  intros d Hd. specialize (Hf d Hd). specialize (Hb d Hd). unfold def_guard_b in Hf. unfold def_guard.
  apply andb_prop in Hf. destruct Hf as [Hf Hkeq]. apply andb_prop in Hf. destruct Hf as [Hf Hkd].
  apply andb_prop in Hf. destruct Hf as [Hf Hm]. apply andb_prop in Hf. destruct Hf as [Hfr Hws].
  rewrite Hfr, Hws, Hm, Hkd, Hkeq. reflexivity.
Qed.
