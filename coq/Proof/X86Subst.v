(* C11 on x86-64, part (iv): a whole `Substitute` on the ISA semantics, composed from
   (i)   Proof/X86ParMoves.v   the parallel moves perform the assignment simultaneously,
   (ii)  Proof/SubstGraph.v    the move graph of a Substitute has in-degree <= 1 (+ its edges),
   (iii) Proof/SubstGraph.v + Proof/X86Mem.v   one erase / share per object variable and their meaning. *)
From Coq Require Import List ZArith NArith String Bool Lia FMapPositive Permutation Sorted.
From SCC Require Import Base.Sexp Lang.AxSyn Sem.AxSem Model.ParMoves Model.Backend Model.X86 Sem.X86Sem
     Generated.Constants Proof.X86State Proof.X86Sel Proof.X86Exec Proof.X86MemSubst Proof.ParMovesScratch
     Proof.X86ParMoves Proof.SubstGraph.
Import ListNotations.
Open Scope Z_scope.

Notation xtpos := (tpos x86_backend).

(* every temporary the numbering hands out is a variable temporary: not rsp, rcx, rbx (HEAP),
   rbp (FREE), not the reserved spill slot *)
Lemma tfp_var_temp p t : temporary_from_position p = Ok t -> var_temp t /\ t <> XR FREE /\ t <> XR HEAP.
Proof.
  unfold temporary_from_position. change RESERVED with 4%N. change REGISTER_NUM with 16%N. change RESERVED_SPILLS with 1%N.
  change SPILL_NUM with 256%N.
  destruct (N.ltb_spec (p + 4) 16) as [H|H].
  - intros E; inversion E; subst. unfold var_temp; cbn [loc_ok]. change TEMP with 1%N. change FREE with 3%N. change HEAP with 2%N.
    repeat split; try congruence; try (intro X; inversion X; lia); lia.
  - destruct (N.ltb_spec (p + 4 - 16 + 1) 256) as [H2|H2]; [|discriminate].
    intros E; inversion E; subst. unfold var_temp; cbn [loc_ok]. unfold slot_ok. change SPILL_NUM with 256%N. change SPILL_TEMP with 0%N.
    repeat split; try congruence; try (intro X; inversion X; lia); try exact H2.
Qed.
Lemma xtpos_var_temp n i t : xtpos n i = Ok t -> var_temp t /\ t <> XR FREE /\ t <> XR HEAP.
Proof. apply tfp_var_temp. Qed.

(* a variable location reads the same in two states that agree on the stack and on all registers
   but rcx and FREE *)
Lemma lget_agree s s0 sp t :
  var_temp t -> t <> XR FREE ->
  (forall r, r <> TEMP -> r <> FREE -> rget s r = rget s0 r) -> stack s = stack s0 ->
  lget s sp t = lget s0 sp t.
Proof.
  intros (L & N1 & N0) NF R ST. destruct t as [r|p]; cbn [lget].
  - apply R; congruence.
  - unfold sget. now rewrite ST.
Qed.

Definition ptr_of (s : xstate) (sp : Z) (t : xtemp) : Z := match lget s sp t with Some p => p | None => 0 end.
Definition rc_temp (o : @rc_op xtemp) : xtemp := match o with RcErase t => t | RcShare t _ => t end.
Definition rc_ok (s0 : xstate) (sp : Z) (o : @rc_op xtemp) : Prop :=
  var_temp (rc_temp o) /\ rc_temp o <> XR FREE /\
  (exists p, lget s0 sp (rc_temp o) = Some p /\ (p = 0 \/ block_ok p)) /\
  match o with RcShare _ n => fits32 (Z.of_N n) = true | RcErase _ => True end.
Definition rc_h (s0 : xstate) (sp : Z) (o : @rc_op xtemp) (hf : PM.t Z * Z) : PM.t Z * Z :=
  match o with
  | RcErase t => erase_h (ptr_of s0 sp t) hf
  | RcShare t n => share_h (ptr_of s0 sp t) (Z.of_N n) hf
  end.

Lemma x86_emit_rc_ok im s0 sp : forall ops pc lc s f,
  Forall (rc_ok s0 sp) ops ->
  (forall r, r <> TEMP -> r <> FREE -> rget s r = rget s0 r) -> stack s = stack s0 ->
  code_at im pc (fst (emit_rc x86_backend ops lc)) -> labels_at im pc (fst (emit_rc x86_backend ops lc)) ->
  frame_ok s0 sp -> rget s FREE = Some f ->
  exists s' f', exec_to im pc s (padd pc (List.length (fst (emit_rc x86_backend ops lc)))) s' /\
    rget s' FREE = Some f' /\
    (heap s', f') = fold_left (fun hf o => rc_h s0 sp o hf) ops (heap s, f) /\
    (forall r, r <> TEMP -> r <> FREE -> rget s' r = rget s0 r) /\ stack s' = stack s0 /\ out s' = out s.
Proof.
  induction ops as [|o ops IH]; intros pc lc s f OK R ST CA LA F0 FR.
  - exists s, f. cbn. repeat split; auto. constructor.
  - inversion OK as [|? ? Oo Or]; subst.
    cbn [emit_rc] in *. destruct (emit_rc_op x86_backend o lc) as [c1 lc1] eqn:E1.
    destruct (emit_rc x86_backend ops lc1) as [c2 lc2] eqn:E2. cbn [fst] in *.
    apply code_at_app in CA as [CA1 CA2]. apply labels_at_app in LA as [LA1 LA2].
    destruct Oo as (VT & NF & (p & Hp & Vp) & Ho).
    assert (F : frame_ok s sp).
    { destruct F0 as [A B]. split; [|exact B]. rewrite R; [exact A|discriminate|discriminate]. }
    assert (Hp' : lget s sp (rc_temp o) = Some p) by (rewrite (lget_agree s s0 sp _ VT NF R ST); exact Hp).
    assert (PO : ptr_of s0 sp (rc_temp o) = p) by (unfold ptr_of; now rewrite Hp).
    pose proof VT as (LT & NT1 & NT0).
    assert (STEP : exists s1 f1, exec_to im pc s (padd pc (List.length c1)) s1 /\ rget s1 FREE = Some f1 /\
              (heap s1, f1) = rc_h s0 sp o (heap s, f) /\
              (forall r, r <> TEMP -> r <> FREE -> rget s1 r = rget s r) /\ stack s1 = stack s /\ out s1 = out s).
    { destruct o as [t|t n]; cbn [emit_rc_op b_erase b_share_n x86_backend x86_backend_with rc_temp rc_h] in *.
      - replace c1 with (fst (x_erase_block t lc)) in * by (now rewrite E1).
        destruct (x86_erase_ok im pc s sp t lc p f CA1 LA1 F LT NT1 NF Hp' Vp FR) as (s1 & f1 & X1 & X2 & X3 & X4 & X5 & X6).
        exists s1, f1. rewrite PO. repeat split; auto.
      - replace c1 with (fst (x_share_block_n t n lc)) in * by (now rewrite E1).
        destruct (x86_share_ok im pc s sp t n lc p f CA1 LA1 F LT NT1 Hp' Vp Ho FR) as (s1 & X1 & X3 & X4 & X5 & X6).
        exists s1, f. rewrite PO. repeat split; auto.
        rewrite X4; [exact FR|discriminate]. }
    destruct STEP as (s1 & f1 & X1 & X2 & X3 & X4 & X5 & X6).
    destruct (IH (padd pc (List.length c1)) lc1 s1 f1 Or) as (s2 & f2 & Y1 & Y2 & Y3 & Y4 & Y5 & Y6); auto.
    { intros r A B. rewrite X4; auto. }
    { congruence. }
    { now rewrite E2. }
    { now rewrite E2. }
    rewrite E2 in *. cbn [fst] in *.
    exists s2, f2. split; [|split; [exact Y2|split; [|split; [exact Y4|split; [exact Y5|congruence]]]]].
    + rewrite app_length, padd_add. eapply exec_to_trans; eauto.
    + cbn [fold_left]. rewrite <- X3. exact Y3.
Qed.

(* the meaning of the update for a variable with k targets *)
Definition count_h (p : Z) (k : nat) (hf : PM.t Z * Z) : PM.t Z * Z :=
  match k with
  | O => erase_h p hf
  | S O => hf
  | S (S n) => share_h p (Z.of_nat (S n)) hf
  end.

Lemma count_targets_le re b : (count_targets re b <= List.length re)%nat.
Proof. unfold count_targets. induction re as [|x re IH]; cbn; [lia|]. destruct (N.eqb _ _); cbn; lia. Qed.

Lemma lookup_of_In (am : amap xtemp) k ts :
  NoDup (map fst am) -> In (k, ts) am -> lookup xtemp xeqb am k = Some ts.
Proof.
  induction am as [|[k1 t1] am IH]; cbn; intros ND Hin; [destruct Hin|].
  inversion ND as [|? ? Hn ND']; subst. destruct Hin as [E|Hin].
  - inversion E; subst. destruct (xeqb_spec k k); congruence.
  - destruct (xeqb_spec k k1) as [->|N]; [|auto]. exfalso. apply Hn. apply in_map_iff. exists (k1, ts); auto.
Qed.

(* what a Substitute does to the state, apart from where control is *)
Definition subst_effect (ctx : ctx) (re : list (binding * ident)) (s : xstate) (sp f : Z)
           (s' : xstate) (f' : Z) (order : list (nat * binding)) (ptr : nat -> Z) : Prop :=
    (* ONE simultaneous assignment: new variable j gets what its source i held *)
    (forall i j bi pj n a b, nth_error ctx i = Some bi -> nth_error re j = Some pj -> idn (snd pj) = idn (bvar bi) ->
       (n = Snd \/ bchi bi <> Ext) -> xtpos n i = Ok a -> xtpos n j = Ok b -> lget s' sp b = lget s sp a) /\
    (* reference counts: every object variable exactly once, k targets: erase / nothing / share (k-1) *)
    Permutation (map snd order) (filter is_obj ctx) /\
    (forall i b, In (i, b) order -> nth_error ctx i = Some b /\ exists t, xtpos Fst i = Ok t /\ lget s sp t = Some (ptr i)) /\
    rget s' FREE = Some f' /\
    (heap s', f') = fold_left (fun hf ib => count_h (ptr (fst ib)) (count_targets re (snd ib)) hf) order (heap s, f) /\
    (* nothing else *)
    (forall u, var_temp u -> u <> XR FREE -> (forall j n, xtpos n j = Ok u -> (List.length re <= j)%nat) -> lget s' sp u = lget s sp u) /\
    rget s' HEAP = rget s HEAP /\ frame_ok s' sp /\ out s' = out s /\
    (forall k, (forall p, slot_ok p -> k <> key (slot_addr sp p)) -> PM.find k (stack s') = PM.find k (stack s)).

(* the reference-count code and the parallel moves of a Substitute *)
Lemma x86_substitute_core im pc ctx re lc c1 lc1 c2 s sp f :
  NoDup (ids ctx) -> NoDup (new_ids re) ->
  Z.of_nat (List.length re) <= 2147483647 ->
  code_weakening_contraction x86_backend (transpose re ctx) ctx lc = Ok (c1, lc1) ->
  code_exchange x86_backend (transpose re ctx) ctx (map fst re) = Ok c2 ->
  code_at im pc (c1 ++ c2) -> labels_at im pc c1 ->
  frame_ok s sp -> rget s FREE = Some f ->
  (* every object variable holds a null pointer or a pointer to a heap block *)
  (forall i b t, nth_error ctx i = Some b -> is_obj b = true -> xtpos Fst i = Ok t ->
     exists p, lget s sp t = Some p /\ (p = 0 \/ block_ok p)) ->
  exists (s' : xstate) (f' : Z) (order : list (nat * binding)) (ptr : nat -> Z),
    exec_to im pc s (padd pc (List.length (c1 ++ c2))) s' /\
    subst_effect ctx re s sp f s' f' order ptr.
Proof.
  intros NDc NDn LEN WC CE CA LA1 F FR PTR.
  unfold code_exchange in CE.
  destruct (connections x86_backend (transpose re ctx) ctx (map fst re)) as [am|e] eqn:CN; [|discriminate].
  cbn [rbind] in CE. rename CE into PMC.
  apply code_at_app in CA as [CA1 CA2].
  (* phase 1: reference counts *)
  destruct (weakening_contraction_counts x86_backend ctx re lc c1 lc1 NDc WC) as (order & PERM & _ & ORD & ops & F2 & EM).
  set (ptr := fun i : nat => match xtpos Fst i with Ok t => ptr_of s sp t | Err _ => 0 end).
  assert (OBJ : forall i b, In (i, b) order -> is_obj b = true).
  { intros i b Hin. assert (In b (map snd order)) as Hb by (apply in_map_iff; exists (i, b); auto).
    eapply Permutation_in in Hb; [|exact PERM]. apply filter_In in Hb. tauto. }
  assert (RCOK : Forall (rc_ok s sp) (List.concat ops)).
  { apply Forall_concat. clear EM PERM. induction F2 as [|[i b] o order' ops' (t & Ht & ->) _ IHF]; constructor.
    - cbn [fst snd] in *. pose proof (ORD i b (or_introl eq_refl)) as Hnth.
      destruct (xtpos_var_temp Fst i t Ht) as (VT & NF & _).
      destruct (PTR i b t Hnth (OBJ i b (or_introl eq_refl)) Ht) as (p & Hp & Vp).
      pose proof (count_targets_le re b) as LE.
      destruct (count_targets re b) as [|[|k]]; cbn [rc_op_for].
      + constructor; [|constructor]. unfold rc_ok; cbn [rc_temp].
        split; [exact VT|split; [exact NF|split; [exists p; auto|exact I]]].
      + constructor.
      + constructor; [|constructor]. unfold rc_ok; cbn [rc_temp].
        split; [exact VT|split; [exact NF|split; [exists p; auto|]]].
        unfold fits32. apply andb_true_iff. split; apply Z.leb_le; lia.
    - apply IHF; intros; [apply ORD|eapply OBJ]; right; eauto. }
  assert (EMc : c1 = fst (emit_rc x86_backend (List.concat ops) lc)) by (now rewrite <- EM).
  rewrite EMc in CA1, LA1.
  destruct (x86_emit_rc_ok im s sp (List.concat ops) pc lc s f RCOK (fun r _ _ => eq_refl) eq_refl CA1 LA1 F FR)
    as (s1 & f1 & X1 & X2 & X3 & X4 & X5 & X6).
  rewrite <- EMc in X1.
  assert (F1 : frame_ok s1 sp).
  { destruct F as [A B]. split; [|exact B]. rewrite X4; [exact A|discriminate|discriminate]. }
  assert (AG : forall t, var_temp t -> t <> XR FREE -> lget s1 sp t = lget s sp t).
  { intros t VT NF. apply lget_agree; auto. }
  (* phase 2: the parallel moves *)
  destruct (transpose_connections_indeg1 x86_backend x86_backend_ok ctx re am NDc NDn CN) as (ID & NT & _ & KEYS).
  pose proof (connections_edges x86_backend x86_backend_ok ctx re am NDc NDn CN) as EDG.
  assert (VTam : forall t, In t (map fst am) \/ In t (all_targets xtemp am) -> var_temp t /\ t <> XR FREE).
  { intros t [Hk|Ht].
    - destruct (KEYS t Hk) as (i & bi & n & _ & _ & Hp). destruct (xtpos_var_temp n i t Hp); tauto.
    - unfold all_targets in Ht. apply in_flat_map in Ht as ([k ts] & Hin & Ht). cbn [snd] in Ht.
      assert (edge xtemp xeqb am k t) as E.
      { destruct (transpose_connections_indeg1 x86_backend x86_backend_ok ctx re am NDc NDn CN) as (_ & _ & SRT & _).
        exists ts. split; [|exact Ht]. apply lookup_of_In; auto.
        apply (sorted_nodup xtemp_compare (cmp_eq x86_backend x86_backend_ok)). exact SRT. }
      apply EDG in E as (i & j & bi & pj & n & _ & _ & _ & _ & _ & Hb). destruct (xtpos_var_temp n j t Hb); tauto. }
  destruct (x86_parallel_moves_ok im am c2 s1 sp ID NT (fun t H => proj1 (VTam t H)) PMC F1) as (s2 & E2 & P1 & P2 & F2' & SF).
  pose proof (exec_straight_exec_to im c2 _ s1 s2 CA2 E2) as X2'.
  exists s2, f1, order, ptr. unfold subst_effect.
  split; [|split; [|split; [|split; [|split; [|split; [|split; [|split; [|split; [|split]]]]]]]]].
  - rewrite app_length, padd_add. eapply exec_to_trans; eauto.
  - intros i j bi pj n a b Hi Hj Hid Hn Ha Hb.
    assert (edge xtemp xeqb am a b) as E by (apply EDG; exists i, j, bi, pj, n; auto 10).
    rewrite (P1 a b E). destruct (xtpos_var_temp n i a Ha) as (VT & NF & _). apply AG; auto.
  - exact PERM.
  - intros i b Hin. split; [apply ORD; exact Hin|].
    assert (exists t, xtpos Fst i = Ok t) as (t & Ht).
    { clear -F2 Hin. induction F2 as [|x o order' ops' (t & Ht & _) _ IHF]; [destruct Hin|].
      destruct Hin as [->|Hin]; [exists t; exact Ht|auto]. }
    exists t. split; [exact Ht|]. destruct (PTR i b t (ORD i b Hin) (OBJ i b Hin) Ht) as (p & Hp & _).
    unfold ptr, ptr_of. rewrite Ht, Hp. reflexivity.
  - destruct SF as (_ & _ & _ & _ & _). destruct (xeqb_spec (XR FREE) (XR FREE)) as [_|N]; [|congruence].
    rewrite <- X2. change (rget s2 FREE) with (lget s2 sp (XR FREE)). change (rget s1 FREE) with (lget s1 sp (XR FREE)).
    apply P2.
    + unfold var_temp; cbn [loc_ok]. change FREE with 3%N. change TEMP with 1%N. repeat split; congruence.
    + intros a E. assert (In (XR FREE) (all_targets xtemp am)) as Hin by (eapply edge_all_targets; eauto).
      destruct (VTam (XR FREE) (or_intror Hin)) as [_ N]. congruence.
  - destruct SF as (SH & _). rewrite SH, X3. clear -F2.
    (* the fold over the emitted operations = the fold over the variables *)
    generalize (heap s, f). induction F2 as [|[i b] o order' ops' (t & Ht & ->) _ IHF]; intros hf; [reflexivity|].
    cbn [List.concat fold_left fst snd]. rewrite fold_left_app, <- IHF. f_equal.
    cbn [fst] in Ht. unfold ptr. rewrite Ht. destruct (count_targets re b) as [|[|k]]; cbn [rc_op_for fold_left rc_h count_h]; auto.
  - intros u VT NF NEW. rewrite <- (AG u VT NF). apply P2; auto.
    intros a E. apply EDG in E as (i & j & bi & pj & n & _ & Hj & _ & _ & _ & Hb).
    specialize (NEW j n Hb). assert (j < List.length re)%nat by (apply nth_error_Some; congruence). lia.
  - change (rget s2 HEAP) with (lget s2 sp (XR HEAP)). change (rget s HEAP) with (lget s sp (XR HEAP)).
    assert (VH : var_temp (XR HEAP)) by (unfold var_temp; cbn [loc_ok]; change HEAP with 2%N; change TEMP with 1%N; repeat split; congruence).
    assert (NH : XR HEAP <> XR FREE) by (change HEAP with 2%N; change FREE with 3%N; congruence).
    rewrite <- (AG _ VH NH). apply P2; auto.
    intros a E. assert (In (XR HEAP) (all_targets xtemp am)) as Hin by (eapply edge_all_targets; eauto).
    apply EDG in E as (i & j & bi & pj & n & _ & _ & _ & _ & _ & Hb). destruct (xtpos_var_temp n j _ Hb) as (_ & _ & N). congruence.
  - exact F2'.
  - destruct SF as (_ & SO & _). congruence.
  - destruct SF as (_ & _ & _ & _ & SK). intros k Hk. rewrite (SK k Hk). now rewrite X5.
Qed.

Theorem x86_substitute_ok im pc types ctx re l args lc code lc' s sp f :
  NoDup (ids ctx) -> NoDup (new_ids re) ->
  Z.of_nat (List.length re) <= 2147483647 ->
  code_statement x86_backend types (Substitute re (Call l args)) ctx lc = Ok (code, lc') ->
  code_at im pc code -> labels_at im pc code ->
  frame_ok s sp -> rget s FREE = Some f ->
  (* every object variable holds a null pointer or a pointer to a heap block *)
  (forall i b t, nth_error ctx i = Some b -> is_obj b = true -> xtpos Fst i = Ok t ->
     exists p, lget s sp t = Some p /\ (p = 0 \/ block_ok p)) ->
  exists (s' : xstate) (f' : Z) (order : list (nat * binding)) (ptr : nat -> Z),
    (* control arrives at the final jump to the callee *)
    exec_to im pc s (padd pc (List.length code - 1)) s' /\
    nth_error code (List.length code - 1) = Some (JMPL (show_ident l +++ "_")) /\
    subst_effect ctx re s sp f s' f' order ptr.
Proof.
  intros NDc NDn LEN CS CA LA F FR PTR.
  cbn [code_statement] in CS.
  destruct (code_weakening_contraction x86_backend (transpose re ctx) ctx lc) as [[c1 lc1]|e] eqn:WC; [|discriminate].
  cbn [rbind] in CS.
  destruct (code_exchange x86_backend (transpose re ctx) ctx (map fst re)) as [c2|e] eqn:CE; [|discriminate].
  cbn [rbind] in CS. inversion CS; subst code lc'; clear CS.
  cbn [b_jump_label b_mark x86_backend x86_backend_with app fst snd] in *.
  rewrite app_assoc in CA, LA. apply code_at_app in CA as [CA _]. apply labels_at_app in LA as [LA _].
  apply labels_at_app in LA as [LA1 _].
  destruct (x86_substitute_core im pc ctx re lc c1 lc1 c2 s sp f NDc NDn LEN WC CE CA LA1 F FR PTR)
    as (s' & f' & order & ptr & X & REST).
  exists s', f', order, ptr.
  assert (LENc : (List.length (c1 ++ c2 ++ [JMPL (show_ident l +++ "_")]) - 1 = List.length (c1 ++ c2))%nat).
  { rewrite !app_length. cbn [List.length]. lia. }
  rewrite LENc. split; [exact X|]. split; [|exact REST].
  rewrite app_assoc. rewrite nth_error_app2 by lia. now rewrite Nat.sub_diag.
Qed.
