(* C09 on RISC-V: the hypotheses of rv_store_chain / rv_load_chain are satisfiable.  A 5-field object (2 blocks) stored
   behind three variables on a fresh heap, and a SHARED 2-block object with five fields loaded behind three variables
   (counts go up, the head's count goes down, nothing is released). *)
From Coq Require Import List ZArith NArith String Bool Lia FMapPositive.
From SCC Require Import Base.Sexp Lang.AxSyn Sem.AxSem Sem.AxHeap Model.Backend Model.RV Sem.RVSem Generated.Constants
     Proof.RVSel Proof.RVHeapAbs Proof.RVHDefs Proof.RVHMem Proof.RVMemStoreChain Proof.RVMemLoadChain.
From SCC Require Model.Heap Model.X86 Proof.X86Mem Proof.X86MemStore Proof.X86MemStoreChain Proof.X86MemLoad Proof.X86MemLoadChain
     Proof.X86HeapDefs Proof.X86HeapAcq.
Import ListNotations.
Open Scope list_scope.
Open Scope Z_scope.

Lemma placed_whole cs : NoDup (labels_of cs) -> placed (mk_image cs) 1%positive cs.
Proof.
  intros ND. pose proof (placed_mk_image [] cs [] ltac:(cbn [app]; rewrite app_nil_r; exact ND)) as H.
  cbn [app List.length padd] in H. rewrite app_nil_r in H. exact H.
Qed.

Definition ex5_val (k : N) : Z := 100 + Z.of_N k.
Definition ex5_rem : ctx := repeat (mkb ("r"%string, 0%N) Ext I64) 3.
Definition ex5_store : ctx := X86MemStoreChain.ex5_store.
(* registers of positions 3..7 = X10..X19 hold ex5_val of their temporary position; HEAP / FREE as at entry *)
Definition ex5_state : rstate :=
  fold_left (fun s k => rset s (rtp k) (Some (ex5_val k))) [6; 7; 8; 9; 10; 11; 12; 13; 14; 15]%N (init_state []).
Definition ex5_code : list rcode := match r_store ex5_store ex5_rem 0 with Ok (cs, _) => cs | Err _ => [] end.

Lemma Bk k : 0 <= k <= 4 -> is_blk (HEAP_BASE + 64 * k).
Proof. intros Hk. exists k. split; [lia|]. split; [reflexivity|]. unfold HEAP_BASE, HEAP_SIZE. lia. Qed.

Example rv_store_example :
  let a := abs_heap (HEAP_BASE + 64) ex5_state in
  let res := Heap.alloc_object (xfsts ex5_val 3 ex5_store) a in
  exists lc', r_store ex5_store ex5_rem 0 = Ok (ex5_code, lc') /\
  xfsts ex5_val 3 ex5_store = [0; 108; 0; 112; 0] /\
  fst res = HEAP_BASE + 64 /\ Heap.frontier (snd res) = HEAP_BASE + 192 /\
  exists s', star (mk_image ex5_code) 1 ex5_state (padd 1 (List.length ex5_code)) s' /\
     st_eqB (abs_heap (HEAP_BASE + 192) s') (snd res) /\ rget s' (rtp 6) = Some (HEAP_BASE + 64) /\
     wblocks 1 (hword s') (HEAP_BASE + 64) = [HEAP_BASE + 64; HEAP_BASE] /\
     hword s' (HEAP_BASE + 64 + 16 + 8) = 107 /\ hword s' (HEAP_BASE + 64 + 32) = 108 /\ hword s' (HEAP_BASE + 48 + 8) = 115.
Proof.
  intros a res.
  assert (Hx : exists lc', r_store ex5_store ex5_rem 0 = Ok (ex5_code, lc')) by (eexists; vm_compute; reflexivity).
  destruct Hx as [lc' Hx]. exists lc'. split; [exact Hx|]. split; [reflexivity|].
  assert (Ef : fst res = HEAP_BASE + 64) by (vm_compute; reflexivity).
  assert (EF : Heap.frontier (snd res) = HEAP_BASE + 192) by (vm_compute; reflexivity).
  split; [exact Ef|]. split; [exact EF|].
  assert (PL : placed (mk_image ex5_code) 1 ex5_code) by (apply placed_whole; apply X86MemStore.nodupb_sound; vm_compute; reflexivity).
  assert (Eacq : alloc_object_acq (xfsts ex5_val 3 ex5_store) a = [HEAP_BASE; HEAP_BASE + 64]) by (vm_compute; reflexivity).
  destruct (rv_store_chain (mk_image ex5_code) 1 ex5_store ex5_rem 0 ex5_code lc' ex5_state (HEAP_BASE + 64) ex5_val Hx ltac:(discriminate) PL)
    as (s' & ST & EQ & Rr & _ & WB & _ & (WD & _) & _).
  - intros i b Hi. destruct i as [|[|[|[|[|i]]]]]; cbn in Hi; try (destruct i; discriminate); inversion Hi; subst b;
      (split; [vm_compute; reflexivity|intros _; vm_compute; reflexivity]).
  - change (List.length ex5_rem) with 3%nat. change (xfsts ex5_val 3 ex5_store) with [0; 108; 0; 112; 0].
    unfold X86MemStoreChain.alloc_object_pre. split.
    + split; [exact (Bk 0 ltac:(lia))|]. split; [vm_compute; discriminate|]. split.
      * intros _. exact (Bk 1 ltac:(lia)).
      * intros _ H. exfalso. apply H. vm_compute. reflexivity.
    + cbn [List.length X86MemStoreChain.chain_pre]. unfold Heap.butlastn at 1. cbn [List.length Nat.sub firstn]. split.
      * split; [|split; [|split]].
        -- replace (Heap.heap _) with (HEAP_BASE + 64 * 1) by (vm_compute; reflexivity). apply Bk. lia.
        -- vm_compute. discriminate.
        -- intros _. replace (Heap.free _) with (HEAP_BASE + 64 * 2) by (vm_compute; reflexivity). apply Bk. lia.
        -- intros _ H. exfalso. apply H. vm_compute. reflexivity.
      * unfold Heap.butlastn. cbn [List.length Nat.sub firstn X86MemStoreChain.chain_pre]. exact I.
  - change (List.length ex5_rem) with 3%nat. fold a. rewrite Eacq.
    constructor; [intros [H|[]]; unfold HEAP_BASE in H; lia|]. constructor; [intros []|constructor].
  - change (List.length ex5_rem) with 3%nat in *. change (Heap.nlinks (List.length ex5_store)) with 1%nat in *.
    fold a in EQ, Rr, WB, WD. fold res in EQ, Rr, WB, WD. rewrite EF in EQ. rewrite Ef in Rr, WB, WD. rewrite Eacq in WB.
    exists s'. split; [exact ST|]. split; [exact EQ|]. split; [exact Rr|]. split; [exact WB|].
    assert (LK : hword s' (HEAP_BASE + 64 + 48) = HEAP_BASE).
    { pose proof WB as WB'. cbn [X86HeapDefs.wblocks rev app] in WB'. injection WB' as LK0. exact LK0. }
    cbn [X86HeapDefs.waddrs app List.length] in WD. rewrite LK in WD.
    pose proof (WD 0%nat _ eq_refl) as W0. pose proof (WD 1%nat _ eq_refl) as W1. pose proof (WD 4%nat _ eq_refl) as W4.
    cbn [List.length ex5_store X86MemStoreChain.ex5_store Nat.sub Nat.add nth] in W0, W1, W4.
    split; [exact (proj2 W0)|]. split; [exact (proj1 W1)|exact (proj2 W4)].
Qed.
Print Assumptions rv_store_example.

(* load: a shared two-block object with five fields behind three variables *)
Definition ex3_existing : ctx := map (fun i => mkb ("v"%string, i) Ext I64) [0; 1; 2]%N.
Definition ex3_state : rstate :=
  let r := rset (rset (rset (rset (init_state []) HEAP (Some (HEAP_BASE + 192))) FREE (Some (HEAP_BASE + 256))) (rtp 4) (Some 777)) (rtp 6) (Some HEAP_BASE) in
  fold_left (fun s (az : Z * Z) => sstore s (HEAP_BASE + fst az) (snd az))
            [(0, 1); (24, 11); (32, HEAP_BASE + 128); (40, 22); (48, HEAP_BASE + 64); (64 + 24, 33); (64 + 40, 44); (64 + 56, 55)] r.
Definition ex3_code : list rcode := match r_load ex5_store ex3_existing 0 with Ok (cs, _) => cs | Err _ => [] end.

Example rv_load_example :
  exists lc', r_load ex5_store ex3_existing 0 = Ok (ex3_code, lc') /\
  hword ex3_state HEAP_BASE = 1 /\ rget ex3_state (rtp 4) = Some 777 /\
  exists s', star (mk_image ex3_code) 1 ex3_state (padd 1 (List.length ex3_code)) s' /\
     st_eqB (abs_heap (HEAP_BASE + 256) s') (Heap.load_object 1 HEAP_BASE (abs_heap (HEAP_BASE + 256) ex3_state)) /\
     rget s' (rtp 7) = Some 11 /\ rget s' (rtp 8) = Some (HEAP_BASE + 128) /\ rget s' (rtp 15) = Some 55 /\
     rget s' (rtp 4) = Some 777.
Proof.
  assert (Hx : exists lc', r_load ex5_store ex3_existing 0 = Ok (ex3_code, lc')) by (eexists; vm_compute; reflexivity).
  destruct Hx as [lc' Hx]. exists lc'. split; [exact Hx|]. split; [vm_compute; reflexivity|]. split; [vm_compute; reflexivity|].
  assert (PL : placed (mk_image ex3_code) 1 ex3_code) by (apply placed_whole; apply X86MemStore.nodupb_sound; vm_compute; reflexivity).
  assert (W : forall o, hword ex3_state (HEAP_BASE + o) =
     if o =? 120 then 55 else if o =? 104 then 44 else if o =? 88 then 33 else if o =? 48 then HEAP_BASE + 64 else
     if o =? 40 then 22 else if o =? 32 then HEAP_BASE + 128 else if o =? 24 then 11 else if o =? 0 then 1 else 0).
  { intros o. unfold ex3_state. cbn [fold_left fst snd]. rewrite !hword_sstore by (vm_compute; reflexivity).
    rewrite !hword_rset. replace (hword (init_state []) (HEAP_BASE + o)) with 0 by (unfold hword, init_state; cbn [heap]; now rewrite PM.gempty).
    unfold HEAP_BASE.
    repeat match goal with |- context [?a =? ?b] => destruct (Z.eqb_spec a b); try lia end; reflexivity. }
  destruct (rv_load_chain (mk_image ex3_code) 1 ex5_store ex3_existing 0 ex3_code lc' ex3_state HEAP_BASE (HEAP_BASE + 256) Hx ltac:(discriminate) PL)
    as (s' & ST & EQ & V & O & _).
  - vm_compute; reflexivity.
  - exact (Bk 0 ltac:(lia)).
  - eexists. vm_compute. reflexivity.
  - eexists. vm_compute. reflexivity.
  - unfold ex5_store, X86MemStoreChain.ex5_store. cbn [X86MemLoadChain.lf_share_ok List.length]. change (3 - X86.bp_n X86.Last)%N with 3%N. change (3 - X86.bp_n X86.Other)%N with 2%N.
    change (rest_len 5 3) with 2%nat. cbn [firstn skipn List.length]. change (rest_len 2 2) with 0%nat. cbn [firstn skipn List.length X86MemLoadChain.lf_ptr].
    change (rest_len 2 (3 - X86.bp_n X86.Other)) with 0%nat. cbn [firstn X86MemLoadChain.lf_ptr]. fo.
    replace (hword ex3_state (HEAP_BASE + 48)) with (HEAP_BASE + 64 * 1) by (rewrite W; reflexivity).
    split; [split; [exact I|]|].
    + split; [exact (Bk 0 ltac:(lia))|]. split; [|split].
      * intros j Hj. assert (Hc : (j = 0 \/ j = 1)%N) by lia. destruct Hc as [-> | ->]; rewrite ?fo_val; cbn [tnum_n Z.of_N Z.mul Z.add Pos.mul Pos.add]; rewrite W; cbn; auto.
        right. exact (Bk 2 ltac:(lia)).
      * intros j Hj. cbn in Hj. lia.
      * intros i b Hi Hb. destruct i as [|[|i]]; cbn in Hi; try (destruct i; discriminate); inversion Hi; subst b; cbn in Hb; try discriminate.
        change (hword ex3_state (HEAP_BASE + 16) = 0). rewrite W. reflexivity.
    + split; [exact (Bk 1 ltac:(lia))|]. split; [|split].
      * intros j Hj. assert (Hc : (j = 0 \/ j = 1 \/ j = 2)%N) by lia.
        destruct Hc as [->|[->| ->]]; rewrite ?fo_val; cbn [tnum_n Z.of_N Z.mul Z.add Pos.mul Pos.add]; rewrite <- Z.add_assoc, W; cbn; auto.
      * intros j Hj. cbn in Hj. lia.
      * intros i b Hi Hb. destruct i as [|[|[|i]]]; cbn in Hi; try (destruct i; discriminate); inversion Hi; subst b; cbn in Hb; try discriminate;
          first [change (hword ex3_state (HEAP_BASE + (64 * 1 + 16)) = 0)|change (hword ex3_state (HEAP_BASE + (64 * 1 + 48)) = 0)]; rewrite W; reflexivity.
  - intros x Hx'. destruct Hx' as (k & Hk & -> & Hhi). rewrite W.
    cbn [List.length ex5_store X86MemStoreChain.ex5_store]. unfold min_int, max_int, two63, HEAP_BASE.
    repeat match goal with |- context [?a =? ?b] => destruct (Z.eqb_spec a b) end; lia.
  - exists s'. split; [exact ST|]. split; [exact EQ|].
    destruct (V 0%nat _ eq_refl) as [V0 _]. destruct (V 1%nat _ eq_refl) as [_ V1]. destruct (V 4%nat _ eq_refl) as [V4 _].
    specialize (V1 ltac:(discriminate)). specialize (O 4%N ltac:(cbn; lia)).
    split; [|split; [|split]].
    + etransitivity; [exact V0|]. vm_compute; reflexivity.
    + etransitivity; [exact V1|]. vm_compute; reflexivity.
    + etransitivity; [exact V4|]. vm_compute; reflexivity.
    + etransitivity; [exact O|]. vm_compute. reflexivity.
Qed.
Print Assumptions rv_load_example.
