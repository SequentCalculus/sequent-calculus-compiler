(* Proof/ShrinkSimBase.v (C04, fragment 2) - the setting of the simulation lemma: the Core machine on
   the argument lists of focused programs (all arguments are variables) and the relation of the values
   obtained; the statement [FLn] and the helper lemmas its cases share (extending related environments,
   integer operands, freshness); for the data/codata cases, clause selection on the three sides (Core
   machine, shrinking, AxCut machine) and the shape of [shrink_clauses]. *)
From Coq Require Import List ZArith NArith String Bool Lia.
From SCC Require Import Proof.CoreInd.
From SCC Require Import Base.Sexp Lang.SynUtil Lang.CoreSyn Lang.AxSyn Sem.AxSem Sem.FsCheck Model.Shrink
     Proof.ShrinkProof Proof.ShrinkSem Proof.ShrinkRn Proof.ShrinkRel.
From SCC Require Sem.CoreSem.
Import ListNotations.
Open Scope list_scope.

Lemma cchi_eqb_eq : forall a b, cchi_eqb a b = true -> a = b.
Proof. destruct a, b; simpl; congruence. Qed.
Lemma cty_eqb_eq : forall a b, cty_eqb a b = true -> a = b.
Proof. destruct a as [|x], b as [|y]; simpl; try congruence. intros H. apply cident_eqb_eq in H. now subst. Qed.
Lemma csame_sig_eq : forall a s, csame_sig a s = true -> cbchi a = cbchi s /\ cbty a = cbty s.
Proof. intros a s H. unfold csame_sig in H. apply andb_prop in H as [H1 H2]. split; [now apply cchi_eqb_eq | now apply cty_eqb_eq]. Qed.

Definition arg_val (e : cenv) (b : cbinding) : option bval :=
  match CoreSem.clookup e (cbvar b), cbchi b with
  | Some (CoreSem.BP pv), CPrd => Some (BP pv)
  | Some (CoreSem.BK kv), CCns => Some (BK kv)
  | _, _ => None
  end.
Lemma arg_val_lookup : forall e b v, arg_val e b = Some v -> CoreSem.clookup e (cbvar b) = Some v.
Proof.
  intros e b v H. unfold arg_val in H. destruct (CoreSem.clookup e (cbvar b)) as [[pv|kv]|]; destruct (cbchi b); congruence.
Qed.

Section Args.
Variable p : fsprog.
Variable q : prog.
Notation P := (CoreSem.fs2c_prog p).

Lemma cont_stuck : forall n w out r, cont p n (CoreSem.stuck w) out = r -> good r -> False.
Proof. intros n w out r H Hg. simpl in H. subst. exact Hg. Qed.
Lemma crun_0 : forall c out r, CoreSem.crun 0 P c out = r -> good r -> False.
Proof. intros c out r H Hg. simpl in H. subst. exact Hg. Qed.

Lemma arg_step : forall n b e m out r,
  CoreSem.crun n P (CoreSem.Arg (CoreSem.fs_arg b) e m) out = r -> good r ->
  exists n' v, n = S n' /\ arg_val e b = Some v /\ CoreSem.crun n' P (CoreSem.App m v) out = r.
Proof.
  intros n b e m out r H Hg. destruct n as [|n]; [exfalso; eapply crun_0; eauto|].
  rewrite crun_S in H. unfold CoreSem.fs_arg in H. unfold arg_val.
  destruct (cbchi b); cbn [CoreSem.cstep] in H;
    destruct (CoreSem.clookup e (cbvar b)) as [[pv|kv]|];
    try (unfold CoreSem.stuck in H; subst; exfalso; exact Hg); eauto.
Qed.

Lemma args_eval : forall rest b done n e out r f,
  CoreSem.crun n P (CoreSem.Arg (CoreSem.fs_arg b) e
                      (CoreSem.MArgs done (map CoreSem.fs_arg rest) e f)) out = r ->
  good r ->
  exists n' vs, n' < n /\ omap (arg_val e) (b :: rest) = Some vs /\
    cont p n' (CoreSem.finish_args P f (rev_append done [] ++ vs)) out = r.
Proof.
  induction rest as [|b' rest IH]; intros b done n e out r f H Hg.
  - apply arg_step in H as (n1 & v & -> & Hv & H); [|exact Hg].
    destruct n1 as [|n1]; [exfalso; eapply crun_0; eauto|]. rewrite crun_cont in H. cbn [CoreSem.cstep map] in H.
    exists n1, [v]. split; [lia|]. split; [cbn [omap]; rewrite Hv; reflexivity|].
    rewrite <- rev_append_cons_app, app_nil_r. exact H.
  - apply arg_step in H as (n1 & v & -> & Hv & H); [|exact Hg].
    destruct n1 as [|n1]; [exfalso; eapply crun_0; eauto|]. rewrite crun_S in H. cbn [CoreSem.cstep map] in H.
    apply IH in H as (n' & vs & Hlt & Hvs & H); [|exact Hg].
    exists n', (v :: vs). split; [lia|]. split.
    + change (omap (arg_val e) (b :: b' :: rest)) with (do y <- arg_val e b; do ys <- omap (arg_val e) (b' :: rest); Some (y :: ys)).
      rewrite Hv. cbn [obind]. rewrite Hvs. reflexivity.
    + rewrite <- rev_append_cons_app. exact H.
Qed.

Lemma start_args_eval : forall args n e out r f,
  cont p n (CoreSem.start_args P (map CoreSem.fs_arg args) e f) out = r -> good r ->
  exists n' vs, n' <= n /\ omap (arg_val e) args = Some vs /\
    cont p n' (CoreSem.finish_args P f vs) out = r.
Proof.
  intros [|b rest] n e out r f H Hg.
  - exists n, []. split; [lia|]. split; [reflexivity | exact H].
  - cbn [map CoreSem.start_args cont] in H. apply args_eval in H as (n' & vs & Hlt & Hvs & H); [|exact Hg].
    exists n', vs. split; [lia|]. split; [exact Hvs | exact H].
Qed.

Lemma args_rel : forall n need pi A G e ae what,
  erel p q n need pi A G e ae -> NoDup (cids G) ->
  forall args sg vs, fargs_ok what G args sg = None -> (forall b, In b args -> need (cbvar b)) ->
  omap (arg_val e) args = Some vs ->
  exists avs, lookups ae (map (fun b => pi (cbvar b)) args) = Some avs /\ vrels p q n sg vs avs.
Proof.
  intros n need pi A G e ae what He Hnd.
  induction args as [|a ar IH]; intros [|s sr] vs Hok Hneed Hvs; cbn [fargs_ok] in Hok; try discriminate.
  - cbn [omap] in Hvs. inv Hvs. exists []. split; [reflexivity | constructor].
  - cbn [omap] in Hvs. destruct (arg_val e a) as [v|] eqn:Hv; [|discriminate]. cbn [obind] in Hvs.
    destruct (omap (arg_val e) ar) as [vr|] eqn:Hvr; [|discriminate]. cbn [obind] in Hvs. inv Hvs.
    apply seq_none in Hok as [H1 Hok]. apply seq_none in Hok as [H2 H3]. apply fensure_none in H1.
    apply csame_sig_eq in H1 as [Hc Ht].
    destruct (erel_var p q _ _ _ _ _ _ _ _ _ _ _ He Hnd H2 (Hneed a (or_introl eq_refl)) (arg_val_lookup _ _ _ Hv))
      as (_ & av & Hl & Hr).
    destruct (IH sr vr H3 (fun b Hb => Hneed b (or_intror Hb)) eq_refl) as (avs & Hls & Hrs).
    exists (av :: avs). split.
    + cbn [map lookups]. unfold lookup_id. rewrite Hl, Hls. reflexivity.
    + constructor; [|exact Hrs]. rewrite <- Hc, <- Ht. exact Hr.
Qed.

Lemma vrels_length : forall n sg vs avs, vrels p q n sg vs avs -> List.length vs = List.length sg /\ List.length avs = List.length sg.
Proof. intros n sg vs avs H. induction H; simpl; [auto | lia]. Qed.

(* every evaluated argument is a needed variable of the context: its AxCut name is in scope *)
Lemma args_scope : forall n need pi A G e ae,
  erel p q n need pi A G e ae -> NoDup (cids G) ->
  forall args vs, (forall b, In b args -> need (cbvar b)) -> omap (arg_val e) args = Some vs ->
  forall a, In a args -> In (idn (pi (cbvar a))) A /\ exists b0, In b0 G /\ cbvar b0 = cbvar a.
Proof.
  intros n need pi A G e ae He Hnd.
  induction args as [|a0 ar IH]; intros vs Hneed Hvs a Hin; [contradiction|].
  cbn [omap] in Hvs. destruct (arg_val e a0) as [v|] eqn:Hv; [|discriminate]. cbn [obind] in Hvs.
  destruct (omap (arg_val e) ar) as [vr|] eqn:Hvr; [|discriminate].
  destruct Hin as [<-|Hin].
  - destruct (erel_clookup p q _ _ _ _ _ _ _ _ _ He Hnd (arg_val_lookup _ _ _ Hv)) as (b0 & Hf & Hb & Hr).
    apply flookup_in in Hf as [Hin0 _]. split; [apply Hr; apply Hneed; now left | eauto].
  - eapply IH; eauto. intros b Hb. apply Hneed. now right.
Qed.
End Args.

Lemma vars_arn_shrink_rn : forall th cd rho args,
  vars (arn_ctx th (shrink_context cd (rn_ctx rho args))) = map (fun b => th (rho (cbvar b))) args.
Proof.
  intros. rewrite vars_arn_ctx, vars_shrink_context, cvars_rn_ctx. unfold cvars. rewrite !map_map. reflexivity.
Qed.

Lemma fresh_list_spec : forall xs A, fresh_list A xs = true -> NoDup xs /\ (forall x, In x xs -> ~ In x A).
Proof.
  induction xs as [|x r IH]; intros A H; simpl in H.
  - split; [constructor | intros x []].
  - apply andb_prop in H as [H1 H2]. apply negb_true_iff in H1. apply memN_false in H1.
    destruct (IH _ H2) as [Hnd Hni]. split.
    + constructor; [|exact Hnd]. intros Hin. apply (Hni x Hin). now left.
    + intros y [<-|Hy]; [exact H1|]. intros HA. apply (Hni y Hy). now right.
Qed.

Lemma Forall2_impl_in : forall {X Y} (R R' : X -> Y -> Prop) l1 l2,
  Forall2 R l1 l2 -> (forall a b, In a l1 -> R a b -> R' a b) -> Forall2 R' l1 l2.
Proof.
  intros X Y R R' l1 l2 H. induction H as [|a b l1 l2 Hab _ IH]; intros Himp; constructor.
  - apply Himp; [now left | exact Hab].
  - apply IH. intros a' b' Hin. apply Himp. now right.
Qed.

Section Base.
Variable p : fsprog.
Variable q : prog.
Notation P := (CoreSem.fs2c_prog p).
Notation data := (fspdata p).
Notation codata := (fspcodata p).
Notation defs := (fspdefs p).
Notation m0 := (fspmax p).
Notation D := (data ++ [cont_int]).

Lemma erel_push : forall n (need need' : cident -> Prop) pi pi' A G e ae x c t cv x' av,
  erel p q n need pi A G e ae -> ~ In (idn x') A ->
  (forall b, In b G -> need' (cbvar b) -> need (cbvar b) /\ idn (pi' (cbvar b)) = idn (pi (cbvar b))) ->
  idn (pi' x) = idn x' -> vrel p q n c t cv av ->
  erel p q n need' pi' (idn x' :: A) (mkcb x c t :: G) ((x, cv) :: e) ((x', av) :: ae).
Proof.
  intros n need need' pi pi' A G e ae x c t cv x' av He Hni Hpi Hx Hv. unfold erel in *. constructor.
  - split; [reflexivity|]. intros _. cbn [cbvar cbchi cbty fst snd]. split; [left; auto|].
    exists av. split; [|exact Hv]. cbn [lookup]. rewrite Hx, N.eqb_refl. reflexivity.
  - eapply Forall2_impl_in; [exact He|]. intros b ev Hb [H1 H2].
    split; [exact H1|]. intros Hn. destruct (Hpi b Hb Hn) as [Hn' Hid].
    destruct (H2 Hn') as (Hin & av' & Hl & Hr). rewrite Hid. split; [right; exact Hin|].
    exists av'. split; [|exact Hr]. cbn [lookup].
    destruct (N.eqb (idn x') (idn (pi (cbvar b)))) eqn:E; [|exact Hl].
    apply N.eqb_eq in E. exfalso. apply Hni. rewrite E. exact Hin.
Qed.

(* pushing the parameters of a clause: Core parameters ctx bound to vs, AxCut parameters xs' bound to avs *)
Lemma lookup_app_bind : forall xs avs e1 ae x, bind xs avs = Some e1 -> ~ In x (map idn xs) -> lookup (e1 ++ ae) x = lookup ae x.
Proof.
  induction xs as [|y r IH]; intros [|av avr] e1 ae x Hb Hn; simpl in Hb; try discriminate.
  - inv Hb. reflexivity.
  - destruct (bind r avr) as [e2|] eqn:E; [|discriminate]. inv Hb. simpl.
    destruct (N.eqb (idn y) x) eqn:E2; [apply N.eqb_eq in E2; exfalso; apply Hn; left; exact E2|].
    eapply IH; eauto. intros Hx. apply Hn. now right.
Qed.

Lemma erel_push_list : forall n (need need' : cident -> Prop) pi pi' A G e ae,
  erel p q n need pi A G e ae ->
  (forall b, In b G -> need' (cbvar b) -> need (cbvar b) /\ idn (pi' (cbvar b)) = idn (pi (cbvar b))) ->
  forall ctx vs xs' avs e' e1,
  NoDup (map idn xs') -> (forall x, In x (map idn xs') -> ~ In x A) ->
  map (fun b => idn (pi' (cbvar b))) ctx = map idn xs' ->
  vrels p q n ctx vs avs ->
  CoreSem.cbind (cvars ctx) vs e = Some e' -> bind xs' avs = Some e1 ->
  erel p q n need' pi' (rev_append (map idn xs') A) (ctx ++ G) e' (e1 ++ ae).
Proof.
  intros n need need' pi pi' A G e ae He Hpi.
  induction ctx as [|b ctx IH]; intros vs xs' avs e' e1 Hnd Hdis Hids Hv Hcb Hb.
  - destruct xs' as [|? ?]; [|discriminate]. inversion Hv; subst. simpl in Hcb, Hb. inv Hcb. inv Hb. simpl.
    unfold erel in *. eapply Forall2_impl_in; [exact He|]. intros b ev Hb [H1 H2].
    split; [exact H1|]. intros Hn. destruct (Hpi b Hb Hn) as [Hn' Hid]. rewrite Hid. apply H2. exact Hn'.
  - destruct xs' as [|x' xs']; [discriminate|]. inversion Hv as [|? ? cv cvs av avs' Hv1 Hvr]; subst.
    cbn [cvars map CoreSem.cbind] in Hcb. fold (cvars ctx) in Hcb.
    destruct (CoreSem.cbind (cvars ctx) cvs e) as [e2|] eqn:Ecb; [|discriminate]. inv Hcb.
    cbn [bind] in Hb. destruct (bind xs' avs') as [e3|] eqn:Eb; [|discriminate]. inv Hb.
    cbn [map] in Hids, Hnd, Hdis. inversion Hids as [[Hid1 Hidr]]. inversion Hnd as [|? ? Hni Hnd']; subst.
    specialize (IH cvs xs' avs' e2 e3 Hnd' (fun x Hx => Hdis x (or_intror Hx)) Hidr Hvr Ecb Eb).
    cbn [app]. unfold erel. constructor.
    + split; [reflexivity|]. intros _. cbn [fst snd]. rewrite Hid1. split.
      * apply in_rev_append. left. now left.
      * exists av. split; [|exact Hv1]. cbn [app lookup]. rewrite N.eqb_refl. reflexivity.
    + assert (Hsub : forall y, In y (rev_append (map idn xs') A) -> In y (rev_append (map idn (x' :: xs')) A)).
      { intros y Hy. apply in_rev_append in Hy. apply in_rev_append. cbn [map]. destruct Hy; [left; now right | now right]. }
      unfold erel in IH. eapply Forall2_impl_in; [exact IH|]. intros b1 ev _ [H1 H2].
      split; [exact H1|]. intros Hn. destruct (H2 Hn) as (Hin & av' & Hl & Hr). split; [apply Hsub; exact Hin|].
      exists av'. split; [|exact Hr]. cbn [app lookup].
      destruct (N.eqb (idn x') (idn (pi' (cbvar b1)))) eqn:E; [|exact Hl].
      apply N.eqb_eq in E. exfalso. apply in_rev_append in Hin. destruct Hin as [Hin|Hin].
      * apply Hni. rewrite E. exact Hin.
      * apply (Hdis (idn x')); [now left | rewrite E; exact Hin].
Qed.

Lemma arg_int_step : forall n a e m out r,
  CoreSem.crun n P (CoreSem.Arg (CProducer (CoreSem.fs_var a)) e m) out = r -> good r ->
  exists n' pv, n = S n' /\ CoreSem.clookup e a = Some (BP pv) /\ CoreSem.crun n' P (CoreSem.App m (BP pv)) out = r.
Proof.
  intros n a e m out r H Hg. destruct n as [|n]; [exfalso; eapply crun_0; eauto|].
  rewrite crun_S in H. unfold CoreSem.fs_var in H. cbn [CoreSem.cstep] in H.
  destruct (CoreSem.clookup e a) as [[pv|kv]|]; try (unfold CoreSem.stuck in H; subst; exfalso; exact Hg); eauto.
Qed.
Lemma erel_int : forall n (need : cident -> Prop) pi A G e ae x cv,
  erel p q n need pi A G e ae -> NoDup (cids G) -> fbound G x CPrd CI64 = None -> need x ->
  CoreSem.clookup e x = Some cv ->
  exists z, cv = BP (PInt z) /\ lookup_int ae (pi x) = Some z.
Proof.
  intros n need pi A G e ae x cv He Hnd Hb Hn Hl.
  destruct (erel_var p q _ _ _ _ _ _ _ _ _ _ _ He Hnd Hb Hn Hl) as (_ & av & Hla & Hv).
  apply vrel_int_inv in Hv as (z & -> & ->). exists z. split; [reflexivity|].
  unfold lookup_int, lookup_id. now rewrite Hla.
Qed.

(* Shrinking is always called on [rn_stmt rho s], s a sub-statement of the input in the typing context G, and the AxCut
   statement that runs is [arn th t], t the result: [rho] collects the renamings shrinking has performed (renaming cuts,
   known cuts, lifted parameters), [th] those of the eta expansions (ax_subst of the critical clauses).  The invariant:
   ids of G are distinct and old (<= m0 <= max_id); outside G and on old ids neither renames; [rho] sends a variable of G
   to a variable of G or to a fresh id; [th] depends on the id only (inv_P), so it acts on AxCut variables. *)
Record inv (G : cctx) (rho th : cident -> cident) (st : sst) : Prop := mkinv {
  inv_nd : NoDup (cids G);
  inv_le : forall i, In i (cids G) -> (i <= m0)%N;
  inv_st : (m0 <= s_max st)%N;
  inv_rho : forall x, ~ In (cid_id x) (cids G) -> (cid_id x <= m0)%N -> rho x = x;
  inv_th : forall x, ~ In (cid_id x) (cids G) -> th x = x;
  inv_rng : forall b, In b G -> In (cid_id (rho (cbvar b))) (cids G) \/ (m0 < cid_id (rho (cbvar b)))%N;
  inv_P : forall x y, cid_id x = cid_id y -> idn (th x) = idn (th y)
}.

Definition lifted_in (st : sst) : Prop := forall d, In d (s_lifted st) -> In d (pdefs q).

(* The simulation statement, for n steps of Core fuel and any shrinking fuel k ([lbl]: the name of the enclosing
   definition, from which `lift` builds labels).  s is well-typed in G with unique, old, consistently named binders; the
   Core environment e and the AxCut environment ae are related on the variables that occur in s ([erel]: x of G is found
   under the id of th (rho x)); A lists the ids in use in ae, and the binders of the shrunk statement avoid them ([pfresh]);
   the definitions lifted so far are definitions of the output q.  Then a good Core run of s is matched by the AxCut run. *)
Definition FLs (n : nat) (s : fsstmt) : Prop :=
  forall k lbl G rho th st t st' A e ae,
    inv G rho th st ->
    check_stmt data codata defs G s = None -> ub_stmt (cids G) s = true -> ib_stmt m0 s = true ->
    nc_stmt (cvars G) s = true ->
    shrink_stmt k (mksenv D codata lbl) (rn_stmt rho s) st = SOk (t, st') ->
    pfresh A t = true -> lifted_in st' ->
    erel p q n (fun x => occurs x s) (fun x => th (rho x)) A G e ae ->
    forall out r, CoreSem.crun n P (CoreSem.Run (CoreSem.fs2c_stmt s) e) out = r -> good r ->
    exists m, exec_named m q ae (arn th t) out = r.
Definition FLn (n : nat) : Prop := forall s, FLs n s.

Lemma shrink_stmt_S : forall k E s st, shrink_stmt (S k) E s st = shrink_step (shrink_stmt k E) E s st.
Proof. reflexivity. Qed.

Lemma lifted_in_mono : forall st st' nd, lifted_in st' -> s_lifted st' = nd ++ s_lifted st -> lifted_in st.
Proof. intros st st' nd H E d Hd. apply H. rewrite E. apply in_or_app. now right. Qed.
Lemma inv_st_mono : forall G rho th st st1, inv G rho th st -> (s_max st <= s_max st1)%N -> inv G rho th st1.
Proof. intros G rho th st st1 [] Hle. constructor; auto. lia. Qed.
Lemma inv_push : forall G rho th st x c t, inv G rho th st -> ~ In (cid_id x) (cids G) -> (cid_id x <= m0)%N ->
  inv (mkcb x c t :: G) rho th st.
Proof.
  intros G rho th st x c t [] Hni Hle. constructor; auto.
  - cbn [cids map cbvar]. constructor; auto.
  - intros i [<-|Hi]; auto.
  - intros y Hy Hym. apply inv_rho0; [|exact Hym]. intros Hin. apply Hy. now right.
  - intros y Hy. apply inv_th0. intros Hin. apply Hy. now right.
  - intros b [<-|Hb].
    + left. cbn [cbvar]. rewrite inv_rho0; auto. now left.
    + destruct (inv_rng0 b Hb) as [H|H]; [left; now right | now right].
Qed.
Lemma inv_self : forall G rho th st x, inv G rho th st -> ~ In (cid_id x) (cids G) -> (cid_id x <= m0)%N -> th (rho x) = x.
Proof. intros G rho th st x [] Hni Hle. rewrite inv_rho0; auto. Qed.
(* binding a Core binder that keeps its name: the common step of every case that enters a mu, mu~ or let *)
Lemma erel_bind : forall n n' (need need' : cident -> Prop) G rho th st A e ae x c t cv av,
  erel p q n need (fun y => th (rho y)) A G e ae -> n' <= n -> inv G rho th st ->
  ~ In (cid_id x) (cids G) -> (cid_id x <= m0)%N -> ~ In (idn x) A ->
  (forall y, need' y -> need y) -> vrel p q n' c t cv av ->
  erel p q n' need' (fun y => th (rho y)) (idn x :: A) (mkcb x c t :: G) ((x, cv) :: e) ((x, av) :: ae).
Proof.
  intros n n' need need' G rho th st A e ae x c t cv av He Hle Hinv Hux Hix Hpx Hneed Hv.
  eapply erel_push with (pi := fun y => th (rho y)) (need := need).
  - eapply erel_weaken; [exact He | exact Hle | auto | apply incl_refl].
  - exact Hpx.
  - intros b _ Hb. split; [now apply Hneed | reflexivity].
  - rewrite (inv_self _ _ _ _ _ Hinv Hux Hix). reflexivity.
  - exact Hv.
Qed.
Lemma subst_ident_notin : forall sub y, ~ In (cid_id y) (map fst sub) -> subst_ident sub y = y.
Proof.
  induction sub as [|[o nw] r IH]; intros y H; [reflexivity|]. simpl in *.
  destruct (N.eqb o (cid_id y)) eqn:E; [apply N.eqb_eq in E; exfalso; apply H; now left|]. apply IH. tauto.
Qed.
Lemma subst_ident_range : forall sub y, subst_ident sub y = y \/ In (subst_ident sub y) (map snd sub).
Proof.
  induction sub as [|[o nw] r IH]; intros y; [now left|]. simpl.
  destruct (N.eqb o (cid_id y)); [right; now left|]. destruct (IH y); [now left | right; now right].
Qed.
Lemma map_fst_combine_incl : forall {X Y} (a : list X) (b : list Y) x, In x (map fst (combine a b)) -> In x a.
Proof. intros X Y a b x H. apply in_map_iff in H as ([u v] & <- & H). eapply in_combine_l; eauto. Qed.
Lemma map_snd_combine_incl : forall {X Y} (a : list X) (b : list Y) x, In x (map snd (combine a b)) -> In x b.
Proof. intros X Y a b x H. apply in_map_iff in H as ([u v] & <- & H). eapply in_combine_r; eauto. Qed.
Lemma cids_app : forall a b, cids (a ++ b) = cids a ++ cids b.
Proof. intros. unfold cids. apply map_app. Qed.
Lemma subst_combine_map : forall ctx zs, NoDup (cids ctx) -> List.length zs = List.length ctx ->
  map (fun b => subst_ident (combine (cids ctx) zs) (cbvar b)) ctx = zs.
Proof.
  induction ctx as [|b ctx IH]; intros [|z zs] Hnd Hlen; try discriminate; [reflexivity|].
  cbn [cids map] in Hnd. inversion Hnd as [|? ? Hni Hnd']; subst. cbn [cids map combine subst_ident].
  rewrite N.eqb_refl. f_equal.
  transitivity (map (fun b0 => subst_ident (combine (cids ctx) zs) (cbvar b0)) ctx); [|apply IH; [exact Hnd' | simpl in Hlen; lia]].
  apply map_ext_in. intros b' Hb'. destruct (N.eqb (cid_id (cbvar b)) (cid_id (cbvar b'))) eqn:E; [|reflexivity].
  apply N.eqb_eq in E. exfalso. apply Hni. rewrite E. unfold cids. apply in_map_iff. eauto.
Qed.

Lemma inv_old : forall G rho th st ids zs b, inv G rho th st -> In b G ->
  (forall i, In i ids -> ~ In i (cids G) /\ (i <= m0)%N) ->
  subst_ident (combine ids zs) (rho (cbvar b)) = rho (cbvar b).
Proof.
  intros G rho th st ids zs b Hinv Hb Hids. apply subst_ident_notin. intros Hin. apply map_fst_combine_incl in Hin.
  destruct (Hids _ Hin) as [H1 H2]. destruct (inv_rng _ _ _ _ Hinv b Hb) as [H|H]; [contradiction | lia].
Qed.

Lemma inv_ext : forall G rho th st ctx zs, inv G rho th st -> NoDup (cids ctx) ->
  (forall i, In i (cids ctx) -> ~ In i (cids G) /\ (i <= m0)%N) ->
  (forall z, In z zs -> In (cid_id z) (cids G) \/ (m0 < cid_id z)%N) ->
  inv (ctx ++ G) (fun x => subst_ident (combine (cids ctx) zs) (rho x)) th st.
Proof.
  intros G rho th st ctx zs Hinv Hnd Hids Hzs. pose proof Hinv as []. constructor; auto.
  - rewrite cids_app. apply NoDup_app_intro; auto. intros x H1 H2. apply (proj1 (Hids x H1)). exact H2.
  - intros i Hi. rewrite cids_app in Hi. apply in_app_or in Hi as [Hi|Hi]; [apply Hids; exact Hi | auto].
  - intros y Hy Hym. rewrite cids_app in Hy. rewrite inv_rho0; [|intros H; apply Hy; apply in_or_app; now right | exact Hym].
    apply subst_ident_notin. intros Hin. apply map_fst_combine_incl in Hin. apply Hy. apply in_or_app. now left.
  - intros y Hy. apply inv_th0. intros H. apply Hy. rewrite cids_app. apply in_or_app. now right.
  - intros b Hb. rewrite cids_app. apply in_app_or in Hb as [Hb|Hb].
    + assert (Hbi : In (cid_id (cbvar b)) (cids ctx)) by (unfold cids; apply in_map_iff; eauto).
      destruct (Hids _ Hbi) as [H1 H2]. rewrite inv_rho0; auto.
      destruct (subst_ident_range (combine (cids ctx) zs) (cbvar b)) as [E|E].
      * rewrite E. left. apply in_or_app. now left.
      * apply map_snd_combine_incl in E. destruct (Hzs _ E) as [H|H]; [left; apply in_or_app; now right | now right].
    + rewrite (inv_old _ _ _ _ _ _ _ Hinv Hb Hids). destruct (inv_rng0 b Hb) as [H|H]; [left; apply in_or_app; now right | now right].
Qed.

Lemma erel_alias_list : forall n (need need' : cident -> Prop) pi pi' A G e ae,
  erel p q n need pi A G e ae ->
  (forall b, In b G -> need' (cbvar b) -> need (cbvar b) /\ idn (pi' (cbvar b)) = idn (pi (cbvar b))) ->
  forall ctx vs avs e',
  vrels p q n ctx vs avs ->
  lookups ae (map (fun b => pi' (cbvar b)) ctx) = Some avs ->
  (forall b, In b ctx -> In (idn (pi' (cbvar b))) A) ->
  CoreSem.cbind (cvars ctx) vs e = Some e' ->
  erel p q n need' pi' A (ctx ++ G) e' ae.
Proof.
  intros n need need' pi pi' A G e ae He Hpi.
  induction ctx as [|b ctx IH]; intros vs avs e' Hv Hl HA Hcb.
  - inversion Hv; subst. simpl in Hcb. inv Hcb. simpl.
    unfold erel in *. eapply Forall2_impl_in; [exact He|]. intros b ev Hb [H1 H2].
    split; [exact H1|]. intros Hn. destruct (Hpi b Hb Hn) as [Hn' Hid]. rewrite Hid. apply H2. exact Hn'.
  - inversion Hv as [|? ? cv cvs av avs' Hv1 Hvr]; subst.
    cbn [cvars map CoreSem.cbind] in Hcb. fold (cvars ctx) in Hcb.
    destruct (CoreSem.cbind (cvars ctx) cvs e) as [e2|] eqn:Ecb; [|discriminate]. inv Hcb.
    cbn [map lookups] in Hl. destruct (lookup_id ae (pi' (cbvar b))) as [av0|] eqn:El; [|discriminate].
    destruct (lookups ae (map (fun b0 => pi' (cbvar b0)) ctx)) as [avr|] eqn:Elr; [|discriminate]. inv Hl.
    cbn [app]. unfold erel. constructor.
    + split; [reflexivity|]. intros _. cbn [fst snd]. split; [apply HA; now left|]. exists av. split; [exact El | exact Hv1].
    + apply (IH cvs avs' e2 Hvr eq_refl (fun b0 Hb0 => HA b0 (or_intror Hb0)) Ecb).
Qed.

Lemma vrels_sig : forall n ctx sg vs avs, fparams_ok ctx sg = true -> vrels p q n sg vs avs -> vrels p q n ctx vs avs.
Proof.
  intros n. induction ctx as [|b ctx IH]; intros [|s sg] vs avs Hp Hv; simpl in Hp; try discriminate.
  - exact Hv.
  - apply andb_prop in Hp as [H1 H2]. apply csame_sig_eq in H1 as [Hc Ht].
    inversion Hv; subst. constructor; [rewrite Hc, Ht; assumption | eapply IH; eauto].
Qed.

Lemma is_codata_same : forall ty, CoreSem.is_codata P ty = is_codata codata ty.
Proof. destruct ty; reflexivity. Qed.
End Base.


Definition fs2c_clauses (cls : list fsclause) : list cclause := map CoreSem.fs2c_clause cls.
Lemma fs2c_term_xcase : forall c cls t, CoreSem.fs2c_term (FsXCase c cls t) = CXCase c (fs2c_clauses cls) t.
Proof. reflexivity. Qed.
Lemma cfind_clause_fs2c : forall cls K,
  CoreSem.cfind_clause (fs2c_clauses cls) K
  = option_map CoreSem.fs2c_clause (find (fun c => cident_eqb (clause_xtor c) K) cls).
Proof.
  intros cls K. unfold CoreSem.cfind_clause, fs2c_clauses. induction cls as [|[c x ctx b] r IH]; [reflexivity|].
  simpl. destruct (cident_eqb x K); [reflexivity | exact IH].
Qed.
Lemma find_clause_arn : forall th cls K,
  find_clause (arn_cls th cls) K
  = option_map (fun c : clause => (fst (fst c), snd (fst c), arn th (snd c))) (find_clause cls K).
Proof.
  intros th cls K. unfold find_clause, arn_cls. induction cls as [|[[x c] b] r IH]; [reflexivity|].
  simpl. unfold cl_xtor at 1 3. simpl. destruct (ident_eqb x K); [reflexivity | exact IH].
Qed.
Lemma pfresh_cls_in : forall A cls x c b, pfresh_cls A cls = true -> In (x, c, b) cls ->
  fresh_list A (ids c) = true /\ pfresh (rev_append (ids c) A) b = true.
Proof.
  intros A cls x c b H Hin. unfold pfresh_cls in H. rewrite forallb_forall in H. apply H in Hin. simpl in Hin.
  now apply andb_prop in Hin.
Qed.

Lemma negb_mem_notin : forall x l, negb (mem_id x l) = true -> ~ In x l.
Proof. intros x l H Hin. apply mem_id_in in Hin. rewrite Hin in H. discriminate. Qed.
Lemma negb_memN_notin : forall x l, negb (memN x l) = true -> ~ In x l.
Proof. intros x l H Hin. apply memN_in in Hin. rewrite Hin in H. discriminate. Qed.
Lemma id_le_le : forall m x, id_le m x = true -> (cid_id x <= m)%N.
Proof. intros m x H. now apply N.leb_le. Qed.

Section Data.
Variable p : fsprog.
Notation data := (fspdata p).
Notation codata := (fspcodata p).
Notation defs := (fspdefs p).
Notation m0 := (fspmax p).
Notation D := (data ++ [cont_int]).
Hypothesis Hdisj : forall n, find_decl data n <> None -> find_decl codata n = None.

Lemma data_not_codata : forall T d, find_decl data T = Some d -> is_codata codata (CDecl T) = false.
Proof. intros T d H. rewrite is_codata_find. rewrite Hdisj; [reflexivity | congruence]. Qed.
Lemma codata_is_codata : forall T d, find_decl codata T = Some d -> is_codata codata (CDecl T) = true.
Proof. intros T d H. rewrite is_codata_find, H. reflexivity. Qed.

Lemma check_bodies_in : forall G cls cl, check_bodies data codata defs G cls = None -> In cl cls ->
  check_stmt data codata defs (clause_ctx cl ++ G) (clause_body cl) = None.
Proof.
  intros G cls cl. induction cls as [|[c x ctx b] r IH]; intros H Hin; [contradiction|].
  rewrite check_bodies_cons in H. destruct (check_stmt data codata defs (ctx ++ G) b) eqn:E; [discriminate|].
  destruct Hin as [<-|Hin]; [exact E | now apply IH].
Qed.

Lemma ub_clauses_in : forall S cls cl, ub_clauses S cls = true -> In cl cls ->
  fresh_ids S (cids (clause_ctx cl)) = true /\ ub_stmt (rev_append (cids (clause_ctx cl)) S) (clause_body cl) = true.
Proof.
  intros S cls cl H Hin. unfold ub_clauses in H. rewrite forallb_forall in H. apply H in Hin. destruct cl. simpl in *.
  now apply andb_prop in Hin.
Qed.
Lemma ib_clauses_in : forall cls cl, ib_clauses m0 cls = true -> In cl cls ->
  ctx_le m0 (clause_ctx cl) = true /\ ib_stmt m0 (clause_body cl) = true.
Proof.
  intros cls cl H Hin. unfold ib_clauses in H. rewrite forallb_forall in H. apply H in Hin. now apply andb_prop in Hin.
Qed.
Lemma ub_cids_app : forall ctx G s, ub_stmt (rev_append (cids ctx) (cids G)) s = ub_stmt (cids (ctx ++ G)) s.
Proof.
  intros. apply ub_stmt_ext. apply mem_id_ext_of_in. intros i. rewrite cids_app, in_rev_append, in_app_iff. tauto.
Qed.
(* the hypotheses of a case, term by term *)
Lemma cut_terms : forall G p0 ty k0,
  check_stmt data codata defs G (FsCut p0 ty k0) = None -> ub_stmt (cids G) (FsCut p0 ty k0) = true ->
  ib_stmt m0 (FsCut p0 ty k0) = true -> nc_stmt (cvars G) (FsCut p0 ty k0) = true ->
  ty_ok data codata ty = true /\
  (check_term data codata defs G CPrd ty p0 = None /\ ub_term (cids G) p0 = true /\ ib_term m0 p0 = true /\ nc_term (cvars G) p0 = true) /\
  (check_term data codata defs G CCns ty k0 = None /\ ub_term (cids G) k0 = true /\ ib_term m0 k0 = true /\ nc_term (cvars G) k0 = true).
Proof.
  intros G p0 ty k0 Hck Hub Hib Hnc. apply cut_typing in Hck as (Hty & Hcp & Hck). rewrite ib_stmt_cut in Hib.
  apply andb_prop in Hib as [? ?]. cbn [ub_stmt] in Hub. apply andb_prop in Hub as [? ?]. apply nc_cut in Hnc as [? ?]. auto 10.
Qed.
Lemma mu_parts : forall G side ty c v s t,
  check_term data codata defs G side ty (FsMu c v s t) = None -> ub_term (cids G) (FsMu c v s t) = true ->
  ib_term m0 (FsMu c v s t) = true -> nc_term (cvars G) (FsMu c v s t) = true ->
  check_stmt data codata defs (mkcb v (opp side) ty :: G) s = None /\ ~ In (cid_id v) (cids G) /\ (cid_id v <= m0)%N /\
  ub_stmt (cid_id v :: cids G) s = true /\ ib_stmt m0 s = true /\ nc_stmt (v :: cvars G) s = true.
Proof.
  intros G side ty c v s t Hck Hub Hib Hnc. apply mu_typing in Hck. cbn [ub_term] in Hub. apply andb_prop in Hub as [Hu Hub].
  rewrite ib_term_mu in Hib. apply andb_prop in Hib as [Hi Hib]. split; [exact Hck|].
  split; [now apply negb_mem_notin|]. split; [now apply id_le_le | auto].
Qed.
Lemma ctx_le_ids : forall ctx i, ctx_le m0 ctx = true -> In i (cids ctx) -> (i <= m0)%N.
Proof.
  intros ctx i H Hi. unfold ctx_le in H. rewrite forallb_forall in H. unfold cids in Hi. apply in_map_iff in Hi as (b & <- & Hb).
  apply N.leb_le. now apply H.
Qed.

(* the clauses produced by shrink_clauses, clause by clause *)
Lemma shrink_clauses_find : forall k E rho cls st cls' st' K cl,
  e_codata E = codata ->
  shrink_clauses (shrink_stmt k E) E (rn_clauses rho cls) st = SOk (cls', st') ->
  (forall c, In c cls -> ib_stmt m0 (clause_body c) = true) -> (m0 <= s_max st)%N ->
  find (fun c => cident_eqb (clause_xtor c) K) cls = Some cl ->
  exists t1 st1 st1',
    find_clause cls' K = Some (clause_xtor cl, shrink_context codata (clause_ctx cl), t1) /\
    In (clause_xtor cl, shrink_context codata (clause_ctx cl), t1) cls' /\
    shrink_stmt k E (rn_stmt rho (clause_body cl)) st1 = SOk (t1, st1') /\
    (s_max st <= s_max st1)%N /\ (s_max st1' <= s_max st')%N /\ (exists nd, s_lifted st' = nd ++ s_lifted st1').
Proof.
  intros k E rho cls. induction cls as [|[c x ctx b] r IH]; intros st cls' st' K cl HE H Hib Hm Hf; [discriminate|].
  cbn [rn_clauses map rn_clause shrink_clauses] in H. fold (rn_clauses rho r) in H.
  destruct (shrink_stmt k E (rn_stmt rho b) st) as [[b' st1]|] eqn:E1; [|discriminate]. cbn [sbind] in H.
  destruct (shrink_clauses (shrink_stmt k E) E (rn_clauses rho r) st1) as [[r' st2]|] eqn:E2; [|discriminate]. cbn [sbind] in H.
  inv H. unfold shrink_identifier. rewrite HE.
  destruct (shrink_stmt_mono _ _ _ _ _ _ E1) as [Hm1 (nd1 & Hl1)].
  destruct (shrink_clauses_mono _ _ _ _ _ _ E2) as [Hm2 (nd2 & Hl2)].
  cbn [find clause_xtor] in Hf. unfold find_clause. cbn [find]. unfold cl_xtor at 1. cbn [fst].
  change (ident_eqb x K) with (cident_eqb x K).
  destruct (cident_eqb x K) eqn:Ex.
  - inv Hf. cbn [clause_xtor clause_ctx clause_body]. exists b', st, st1. split; [reflexivity|]. split; [now left|].
    split; [exact E1|]. split; [lia|]. split; [exact Hm2|]. exists nd2. exact Hl2.
  - destruct (IH st1 r' st' K cl HE E2 (fun c0 Hc => Hib c0 (or_intror Hc)) ltac:(lia) Hf) as (t1 & sa & sb & F1 & F2 & F3 & F4 & F5 & F6).
    exists t1, sa, sb. split; [exact F1|]. split; [now right|]. split; [exact F3|]. split; [lia|]. split; [exact F5 | exact F6].
Qed.
End Data.
