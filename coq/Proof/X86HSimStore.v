(* C06, forward simulation for HEAP statements: the code of `x_store` (Let, Create) under `hrel`.
   From the relation, the invariant of the instrumented machine and the room left in the heap region:
   the x86-64 code runs to its end; afterwards the positions in front of the stored variables still
   satisfy the relation - with the machine's heap after `alloc_object` -, the first temporary of the next
   position holds the pointer the machine gives to the new object, and the stored values are represented
   at that pointer (`xflds`).  Composition of x86_store_frame (refinement), alloc_object_bridge (its
   preconditions), heq_alloc_object (the abstraction afterwards) and xrep_frame (old values survive). *)
From Coq Require Import List ZArith NArith String Bool Lia FMapPositive Permutation.
From SCC Require Import Proof.X86Mem Proof.X86MemFrame Proof.X86MemStore Proof.X86MemStoreChain Proof.X86MemStoreFull
     Proof.X86StackFrame.
From SCC Require Import Base.Sexp Lang.AxSyn Sem.AxSem Sem.AxHeap Model.ParMoves Model.Backend Model.X86 Sem.X86Sem Sem.X86Wf
     Generated.Constants Proof.X86State Proof.X86Sel Proof.X86Exec Proof.X86ParMoves Proof.SubstGraph Proof.X86Subst
     Proof.X86SimRel Proof.X86SimStmt Proof.X86HeapDefs Proof.X86HeapAcq Proof.X86HeapCongr Proof.X86HBridge Proof.X86HFrame
     Proof.X86HSimRel Proof.X86HConv.
From SCC Require Proof.X86MemSubst Model.Heap Proof.HeapMore Proof.HeapTrace Proof.HeapRep.
Import ListNotations.
Open Scope Z_scope.
Open Scope list_scope.

(* temporaries: the two numberings *)
Lemma xtpos_mtpos n i t : xtpos n i = Ok t -> t = mtpos (2 * N.of_nat i + tnum_n n) /\ (2 * N.of_nat i + tnum_n n < MAXPOS)%N.
Proof. intros H. apply tfp_tpos. exact H. Qed.
Lemma mtpos_xtpos n i : (2 * N.of_nat i + tnum_n n < MAXPOS)%N -> xtpos n i = Ok (mtpos (2 * N.of_nat i + tnum_n n)).
Proof. intros H. apply tpos_tfp in H. exact H. Qed.

(* the word in the temporary of position k (0 when undefined) *)
Definition wval (s : xstate) (sp : Z) (k : N) : Z := match lget s sp (mtpos k) with Some z => z | None => 0 end.

(* frame of a heap statement: the output and the stack outside the spill area *)
Definition hframe_eq (s s' : xstate) (sp : Z) : Prop := out s' = out s /\ stack_frame s s' sp.
Lemma hframe_eq_refl s sp : hframe_eq s s sp.
Proof. split; [reflexivity|apply stack_frame_refl]. Qed.
Lemma hframe_eq_trans s1 s2 s3 sp : hframe_eq s1 s2 sp -> hframe_eq s2 s3 sp -> hframe_eq s1 s3 sp.
Proof. intros [A1 B1] [A2 B2]. split; [congruence|eapply stack_frame_trans; eauto]. Qed.
Lemma frame_eq_hframe s s' sp : frame_eq s s' sp -> hframe_eq s s' sp.
Proof. intros (_ & O & E). split; [exact O|exact E]. Qed.

Lemma reg_or0_some s r v : reg_or0 s r = v -> v <> 0 -> rget s r = Some v.
Proof. unfold reg_or0. destruct (rget s r); intros E H; congruence. Qed.

Lemma nlinks_upper n : (n <= 2 * Heap.nlinks n + 3)%nat.
Proof.
  unfold Heap.nlinks. destruct (Nat.leb_spec n 3); [lia|].
  assert (D := Nat.div_mod (n - 3 + 1) 2 ltac:(lia)).
  assert (M := Nat.mod_upper_bound (n - 3 + 1) 2 ltac:(lia)). lia.
Qed.

Section HStore.
Variable im : image.
Variable types : list tydecl.
Variable CLO : Z -> ident -> list clause -> ctx -> Prop.
Local Notation hrel := (hrel types CLO).
Local Notation hvrep := (hvrep types CLO).
Local Notation xrep := (xrep types CLO).
Local Notation xflds := (xflds types CLO).
Local Notation xreps := (xreps types CLO).

(* few variables: every position has a temporary *)
Lemma hrel_small c he hs s sp : hrel c he hs s sp -> (List.length he <= 134)%nat.
Proof.
  intros R. destruct (Nat.le_gt_cases (List.length he) 134) as [L|L]; [exact L|exfalso].
  destruct (nth_error he 134) as [[[x v] q]|] eqn:E; [|apply nth_error_None in E; lia].
  destruct (hr_vals R 134%nat x v q E) as (b & _ & V).
  assert (T : exists t, xtpos Snd 134 = Ok t) by (destruct V; eauto).
  destruct T as (t & T). apply xtpos_mtpos in T as [_ K]. cbn in K. unfold MAXPOS in K. lia.
Qed.
Lemma roots_length (he : henv) : (List.length (roots he) <= List.length he)%nat.
Proof. unfold roots, ptrs. rewrite <- (map_length h_ptr he). apply HeapBridge.nz_length_le. Qed.

(* positions of a prefix *)
Lemma hrel_vals_app c1 c2 he1 he2 hs s sp i x v q :
  hrel (c1 ++ c2) (he1 ++ he2) hs s sp -> List.length he1 = List.length c1 ->
  nth_error he2 i = Some (x, v, q) ->
  exists b, nth_error c2 i = Some b /\ hvrep s sp (List.length c1 + i) b v q.
Proof.
  intros R L H. destruct (hr_vals R (List.length c1 + i)%nat x v q) as (b & Hb & V).
  { rewrite nth_error_app2 by lia. replace (List.length c1 + i - List.length he1)%nat with i by lia. exact H. }
  exists b. split; [|exact V]. rewrite nth_error_app2 in Hb by lia.
  now replace (List.length c1 + i - List.length c1)%nat with i in Hb by lia.
Qed.

Lemma app_inv_len {X} : forall (a1 a2 b1 b2 : list X),
  a1 ++ a2 = b1 ++ b2 -> List.length a1 = List.length b1 -> a1 = b1 /\ a2 = b2.
Proof.
  induction a1 as [|x a1 IH]; intros a2 [|y b1] b2 H L; cbn in *; try discriminate; auto.
  inversion H; subst. destruct (IH a2 b1 b2) as [-> ->]; auto.
Qed.
Lemma NoDup_app_l {X} (a b : list X) : NoDup (a ++ b) -> NoDup a.
Proof.
  induction a as [|x a IH]; cbn; [constructor|]. intros H. inversion H; subst. constructor; auto.
  intros I. apply H2. apply in_app_iff. now left.
Qed.

(* the values of the temporaries of the variables to store, and their pointer slots *)
Lemma store_vals c1 c2 he1 he2 hs s sp :
  hrel (c1 ++ c2) (he1 ++ he2) hs s sp -> List.length he1 = List.length c1 ->
  vals_ok s sp (wval s sp) (List.length c1) c2.
Proof.
  intros R L i b Hi.
  assert (Li : (i < List.length c2)%nat) by (apply nth_error_Some; congruence).
  pose proof (hrel_length R) as LEN. rewrite !app_length in LEN.
  destruct (nth_error he2 i) as [[[x v] q]|] eqn:He; [|apply nth_error_None in He; lia].
  destruct (hrel_vals_app c1 c2 he1 he2 hs s sp i x v q R L He) as (b' & Hb' & V).
  assert (b' = b) by congruence. subst b'. unfold wval.
  destruct V as [b z q t A B T Lg|b v q a t1 t2 A K1 K2 T1 T2 L1 L2 X].
  - apply xtpos_mtpos in T as [-> _]. cbn [tnum_n] in Lg. rewrite Lg. split; [reflexivity|congruence].
  - apply xtpos_mtpos in T1 as [-> _]. apply xtpos_mtpos in T2 as [-> _]. cbn [tnum_n] in L1, L2.
    rewrite N.add_0_r in L1. rewrite L1, L2. split; [reflexivity|intros _; reflexivity].
Qed.
Lemma store_fsts c1 c2 he1 he2 hs s sp :
  hrel (c1 ++ c2) (he1 ++ he2) hs s sp -> List.length he1 = List.length c1 ->
  (forall en, In en he2 -> chi_of (h_val en) = Ext -> h_ptr en = 0) ->
  fsts (wval s sp) (List.length c1) c2 = map store_ptr he2 /\ map store_ptr he2 = ptrs he2.
Proof.
  intros R L EX. pose proof (hrel_length R) as LEN. rewrite !app_length in LEN.
  assert (L2 : List.length he2 = List.length c2) by lia.
  split.
  - apply nth_ext with (d := 0) (d' := 0); [now rewrite fsts_length, map_length|].
    intros i Hi. rewrite fsts_length in Hi.
    destruct (nth_error he2 i) as [[[x v] q]|] eqn:He; [|apply nth_error_None in He; lia].
    destruct (hrel_vals_app c1 c2 he1 he2 hs s sp i x v q R L He) as (b & Hb & V).
    assert (E1 : nth i (fsts (wval s sp) (List.length c1) c2) 0 = fst_slot (wval s sp) (List.length c1 + i) b).
    { clear -Hb. revert i Hb. generalize (List.length c1). induction c2 as [|b0 c2 IH]; intros E i Hb; [destruct i; discriminate|].
      destruct i as [|i]; cbn [nth_error fsts nth] in *.
      - inversion Hb; subst. now rewrite Nat.add_0_r.
      - rewrite (IH (S E) i Hb). f_equal. lia. }
    rewrite E1. rewrite (nth_indep _ 0 (store_ptr (x, v, q))) by (rewrite map_length; lia).
    rewrite map_nth. rewrite (nth_error_nth _ _ _ He).
    unfold fst_slot, store_ptr, wval. cbn [h_val h_ptr fst snd].
    destruct V as [b z q t A B T Lg|b v q a t1 t2 A K1 K2 T1 T2 Lg1 Lg2 X].
    + rewrite A. reflexivity.
    + rewrite K1. destruct (bchi b) eqn:Kb; try congruence; apply xtpos_mtpos in T1 as [-> _]; cbn [tnum_n] in Lg1;
        rewrite N.add_0_r in Lg1; now rewrite Lg1.
  - apply map_ext_in. intros en Hen. unfold store_ptr. destruct (chi_of (h_val en)) eqn:K; auto. symmetry. now apply EX.
Qed.

Lemma roots_split (he1 he2 : henv) : Permutation (roots (he1 ++ he2)) (Heap.nz (ptrs he2) ++ roots he1).
Proof. unfold roots, ptrs. rewrite map_app, HeapMore.nz_app. apply Permutation_app_comm. Qed.

Theorem hsim_store rest args he0 fsE hs s sp lc c1 lc1 pc hl fl cl :
  hrel (rest ++ args) (he0 ++ fsE) hs s sp ->
  List.length he0 = List.length rest -> args <> [] ->
  InvA HEAP_BASE hs (roots (he0 ++ fsE)) hl fl cl -> P03 hs ->
  (forall en, In en fsE -> chi_of (h_val en) = Ext -> h_ptr en = 0) ->
  x_store args rest lc = Ok (c1, lc1) ->
  code_at im pc c1 -> labels_at_nh im pc c1 ->
  Heap.frontier (snd (Heap.alloc_object (map store_ptr fsE) hs)) + 64 <= LIMIT ->
  Heap.heap (snd (Heap.alloc_object (map store_ptr fsE) hs)) <> 0 ->
  Heap.free (snd (Heap.alloc_object (map store_ptr fsE) hs)) <> 0 ->
  exists s', exec_to im pc s (padd pc (List.length c1)) s' /\ hframe_eq s s' sp /\
    hrel rest he0 (snd (Heap.alloc_object (map store_ptr fsE) hs)) s' sp /\
    (exists t1, xtpos Fst (List.length rest) = Ok t1 /\ lget s' sp t1 = Some (fst (Heap.alloc_object (map store_ptr fsE) hs))) /\
    xflds (hword s') (map h_val fsE) (fst (Heap.alloc_object (map store_ptr fsE) hs)).
Proof.
  intros R L0 NE IA K03 EX XS CA LA HF HH0 HF0.
  pose proof (hrel_length R) as LEN. rewrite !app_length in LEN.
  assert (LE : List.length fsE = List.length args) by lia.
  set (F := Heap.frontier hs).
  set (val := wval s sp).
  pose proof (store_vals rest args he0 fsE hs s sp R L0) as VO. fold val in VO.
  destruct (store_fsts rest args he0 fsE hs s sp R L0 EX) as [EF EP]. fold val in EF.
  set (fields := map store_ptr fsE) in *.
  assert (NEf : fields <> []).
  { unfold fields. destruct fsE; [cbn in LE; destruct args; [congruence|discriminate]|discriminate]. }
  assert (HR : Z.of_nat (List.length (roots (he0 ++ fsE))) < 1048576).
  { pose proof (roots_length (he0 ++ fsE)). pose proof (hrel_small _ _ _ _ _ R). lia. }
  assert (PM : Permutation (roots (he0 ++ fsE)) (Heap.nz fields ++ roots he0)).
  { rewrite EP. apply roots_split. }
  pose proof (hr_heq R) as HQ. fold F in HQ.
  destruct (alloc_object_bridge fields (abs_heap F s) hs _ _ hl fl cl IA HQ (P03_P3 _ K03) PM NEf HR HF)
    as (PRE & ACQ & ND & UNR).
  destruct (heq_alloc_object (abs_heap F s) hs fields HQ (P03_P3 _ K03) PRE) as (EFST & HQ').
  set (res := Heap.alloc_object fields hs) in *. set (resa := Heap.alloc_object fields (abs_heap F s)) in *.
  assert (LAm : X86Mem.labels_at im pc c1).
  { apply X86MemSubst.labels_at_mem. apply labels_at_of_nh; [eapply nh_x_store; eauto|exact LA]. }
  destruct (x86_store_frame im pc args rest lc c1 lc1 s sp F val XS NE (X86MemSubst.code_at_mem _ _ _ CA) LAm (hr_frame R) VO)
    as (s' & ST & EQ & RP & KEEP & OUT & FR' & WB & FB & (SLOTS & PAD) & HFR & SF).
  { rewrite EF. exact PRE. }
  { rewrite EF, ACQ. exact ND. }
  rewrite EF in EQ, RP, WB, FB, SLOTS, PAD, HFR. fold resa in EQ, RP, WB, FB, SLOTS, PAD.
  rewrite ACQ in WB, HFR. rewrite EFST in RP, WB, FB, SLOTS, PAD. fold res in RP, WB, FB, SLOTS, PAD.
  set (n := List.length args) in *. set (k := Heap.nlinks n) in *.
  (* the abstraction afterwards *)
  assert (EFr : Heap.frontier (snd resa) = Heap.frontier (snd res)) by (destruct HQ' as (_ & _ & X & _); exact X).
  assert (HQ2 : heq (abs_heap (Heap.frontier (snd res)) s') (snd res)).
  { rewrite <- EFr. eapply heq_eqB; [exact EQ|exact HQ']. }
  assert (RH : rget s' HEAP = Some (Heap.heap (snd res))).
  { apply reg_or0_some; [|exact HH0]. destruct HQ2 as (X & _). exact X. }
  assert (RF : rget s' FREE = Some (Heap.free (snd res))).
  { apply reg_or0_some; [|exact HF0]. destruct HQ2 as (_ & X & _). exact X. }
  (* the words of everything reachable from the old roots are untouched *)
  assert (KEPT : forall q, q <> 0 -> In q (ptrs (he0 ++ fsE)) -> kept hs (hword s) (hword s') q).
  { intros q Hq0 Hq b Hb i Hi.
    assert (RB : reach (Heap.m hs) (roots (he0 ++ fsE)) b).
    { eapply HeapRep.reach_trans; [|exact Hb]. intros r [<-|[]] _. apply HeapTrace.reach_src; [|exact Hq0].
      unfold roots. apply HeapMore.in_nz. auto. }
    assert (BB : is_blk b).
    { eapply reach_is_blk; [exact IA| |exact RB].
      pose proof (store_other_frontier O [] 1 hs) as _.
      assert (Heap.frontier hs <= Heap.frontier (snd res)).
      { unfold res, Heap.alloc_object. destruct fields as [|f0 fr]; [congruence|].
        set (sl := Heap.pad 3 (Heap.lastn 3 (f0 :: fr))).
        pose proof (HeapBridge.first_perm (f0 :: fr) _ _ PM) as HP1. fold sl in HP1.
        destruct (HeapBridge.alloc_stage HEAP_BASE hs _ _ hl fl cl sl IA HP1) as (Ef & Hr0 & (hl' & fl' & cl' & IA') & Fm & _ & _).
        destruct (Heap.alloc sl hs) as [b0 s1] eqn:EA. cbn [fst snd] in *. subst b0.
        pose proof (store_other_frontier (List.length (f0 :: fr)) (Heap.butlastn 3 (f0 :: fr)) (Heap.heap hs) s1 _ hl' fl' cl' IA' Hr0). lia. }
      unfold LIMIT in *. lia. }
    apply HFR; [apply not_blk_off; [exact BB|lia]|].
    intros b' Hb'. destruct (UNR b' Hb') as [BB' NR].
    assert (NEb : b <> b') by (intros ->; contradiction).
    destruct (is_blk_apart b b' BB BB' NEb); lia. }
  assert (AG : slots_agree (Heap.m hs) (hword s)) by (eapply heq_slots_agree; exact HQ).
  exists s'. split; [|split; [|split; [|split]]].
  - rewrite <- X86MemSubst.pnth_is_padd. apply X86MemSubst.steps_exec. exact ST.
  - split; [exact OUT|exact SF].
  - (* the positions of `rest` *)
    destruct R as [F0 Al Ro Hr Fr HQ0 Ids NDc Vals]. split; auto.
    + unfold env_ids, ids, erase_env in *. rewrite !map_app in Ids.
      apply app_inv_len in Ids; [tauto|]. rewrite !map_length. exact L0.
    + unfold ids in *. rewrite map_app in NDc. eapply NoDup_app_l; eauto.
    + intros i x v q Hi. assert (Li : (i < List.length he0)%nat) by (apply nth_error_Some; congruence).
      destruct (Vals i x v q) as (b & Hb & V); [rewrite nth_error_app1 by exact Li; exact Hi|].
      rewrite nth_error_app1 in Hb by lia. exists b. split; [exact Hb|].
      destruct V as [b z q t A B T Lg|b v q a t1 t2 A K1 K2 T1 T2 L1 L2 X].
      * eapply hv_int; eauto. apply xtpos_mtpos in T as [-> _]. rewrite KEEP; [exact Lg|]. cbn [tnum_n]. lia.
      * pose proof T1 as T1'. pose proof T2 as T2'.
        apply xtpos_mtpos in T1' as [-> _]. apply xtpos_mtpos in T2' as [-> _].
        eapply (hv_ptr types CLO s' sp i b v q a); eauto.
        -- rewrite KEEP; [exact L1|]. cbn [tnum_n]. lia.
        -- rewrite KEEP; [exact L2|]. cbn [tnum_n]. lia.
        -- destruct (Z.eq_dec q 0) as [->|Hq0].
           ++ eapply (xrep_frame types CLO hs (hword s) (hword s') AG); [exact X|].
              intros b0 Hb0. exfalso. clear -Hb0. remember [0] as src eqn:Es.
              induction Hb0 as [b Hb Hb0|x b Hx IH Hin Hb0]; subst; [destruct Hb as [<-|[]]; congruence|auto].
           ++ eapply (xrep_frame types CLO hs (hword s) (hword s') AG); [exact X|].
              apply KEPT; [exact Hq0|]. unfold ptrs. rewrite map_app, in_app_iff. left.
              apply nth_error_In in Hi. apply (in_map h_ptr) in Hi. exact Hi.
  - assert (KM : (2 * N.of_nat (List.length rest) + tnum_n Fst < MAXPOS)%N).
    { unfold x_store in XS.
      destruct (store_fields_unfold (List.length args) args rest Last lc c1 lc1 NE XS) as (c0 & sv & c3 & _ & _ & Hk & _).
      rewrite app_length in Hk. cbn [tnum_n]. lia. }
    exists (mtpos (2 * N.of_nat (List.length rest) + tnum_n Fst)). split; [apply mtpos_xtpos; exact KM|].
    cbn [tnum_n]. rewrite N.add_0_r. exact RP.
  - (* the new object *)
    assert (Lf : List.length (map h_val fsE) = n) by (rewrite map_length; exact LE).
    apply xf_cons; rewrite ?Lf; fold k.
    + destruct fsE; [cbn in LE; destruct args; [congruence|discriminate]|discriminate].
    + exact FB.
    + exact PAD.
    + apply xreps_intro.
      * rewrite skipn_length, Lf, waddrs_length. pose proof (nlinks_bound n). pose proof (nlinks_upper n). unfold k.
        assert (0 < n)%nat by (unfold n; destruct args; [congruence|cbn; lia]). lia.
      * intros i v a Hv Ha. rewrite nth_error_skipn_add in Ha.
        rewrite nth_error_map in Hv. destruct (nth_error fsE i) as [[[x v0] q]|] eqn:He; [|discriminate].
        cbn in Hv. inversion Hv; subst v0. clear Hv.
        destruct (hrel_vals_app rest args he0 fsE hs s sp i x v q R L0 He) as (b & Hb & V).
        destruct (SLOTS i b Hb) as [S1 S2]. cbv zeta in S1, S2.
        assert (Ea : nth (List.length (waddrs k (hword s') (fst res)) - n + i) (waddrs k (hword s') (fst res)) 0 = a).
        { apply nth_error_nth. exact Ha. }
        rewrite Ea in S1, S2. rewrite S1, S2. unfold fst_slot, snd_slot, val, wval.
        destruct V as [b z q t A B T Lg|b v q a0 t1 t2 A K1 K2 T1 T2 L1 L2 X].
        -- rewrite A. apply xtpos_mtpos in T as [-> _]. cbn [tnum_n] in Lg. rewrite Lg. constructor.
        -- apply xtpos_mtpos in T1 as [-> _]. apply xtpos_mtpos in T2 as [-> _]. cbn [tnum_n] in L1, L2. rewrite N.add_0_r in L1.
           rewrite L1, L2. destruct (bchi b) eqn:Kb; try congruence.
           all: destruct (Z.eq_dec q 0) as [->|Hq0];
             [ eapply (xrep_frame types CLO hs (hword s) (hword s') AG); [exact X|];
               intros b0 Hb0; exfalso; clear -Hb0; remember [0] as src eqn:Es;
               induction Hb0 as [b1 Hb1 Hb10|x1 b1 Hx1 IH Hin Hb10]; subst; [destruct Hb1 as [<-|[]]; congruence|auto]
             | eapply (xrep_frame types CLO hs (hword s) (hword s') AG); [exact X|];
               apply KEPT; [exact Hq0|]; unfold ptrs; rewrite map_app, in_app_iff; right;
               apply nth_error_In in He; apply (in_map h_ptr) in He; exact He ].
Qed.
End HStore.
