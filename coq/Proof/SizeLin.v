(* C19, linearization: the size of the linearized program is at most
     2 * size + 3 * statements * (1 + width)
   where size counts every variable list, and width bounds the number of variables in scope.
   Reason: every statement gains at most ONE `Substitute` (plus, for Create, the closure-environment
   annotation), whose length is bounded by the length of the current context (+ the statement's own
   argument list), and along any path the context only grows by the binders passed. *)
From Coq Require Import String List ZArith NArith Bool Lia.
From SCC Require Import Base.Sexp Lang.AxSyn Lang.AxSize Model.Backend Model.Linearize Proof.LinBasics Proof.LinFbs Proof.LinTyping.
Import ListNotations.
Open Scope list_scope.
Open Scope N_scope.
Local Arguments N.add : simpl never.
Local Arguments N.mul : simpl never.
Local Arguments N.of_nat : simpl never.

Lemma len_app : forall {X} (a b : list X), len (a ++ b) = len a + len b.
Proof. intros; unfold len; rewrite app_length; lia. Qed.
Lemma len_map : forall {X Y} (f : X -> Y) l, len (map f l) = len l.
Proof. intros; unfold len; rewrite map_length; auto. Qed.
Lemma len_cons : forall {X} (a : X) l, len (a :: l) = 1 + len l.
Proof. intros; unfold len; simpl length; lia. Qed.
Lemma len_nil : forall {X}, len (@nil X) = 0.
Proof. reflexivity. Qed.
Lemma len_combine : forall {X Y} (a : list X) (b : list Y), len (combine a b) <= len a.
Proof. intros; unfold len; rewrite combine_length; lia. Qed.
Lemma len_fbs : forall c s, len (filter_by_set c s) <= len c.
Proof. intros; unfold len; pose proof (fbs_length_ctx c s); lia. Qed.
Lemma len_firstn : forall {X} n (l : list X), len (firstn n l) <= len l.
Proof. intros; unfold len; rewrite firstn_length; lia. Qed.
Lemma len_rot : forall {X} n (l : list X), len (skipn n l ++ firstn n l) = len l.
Proof. intros. rewrite len_app. unfold len. rewrite <- (firstn_skipn n l) at 3. rewrite app_length. lia. Qed.
Lemma len_firstn_skipn : forall {X} n (l : list X), len (firstn n l) + len (skipn n l) = len l.
Proof. intros X n l. rewrite <- len_app, firstn_skipn. reflexivity. Qed.
Lemma len_combine_r : forall {X Y} (a : list X) (b : list Y), len (combine a b) <= len b.
Proof. intros X Y a b. unfold len. rewrite combine_length. lia. Qed.
Lemma len_rev : forall {X} (l : list X), len (rev l) = len l.
Proof. intros. unfold len. rewrite rev_length. reflexivity. Qed.

(* lengths of appended / consed / empty lists, pushed to the leaves *)
Ltac lnil := repeat match goal with |- context [@len ?X []] => change (@len X []) with 0 end.
Ltac lens := repeat (progress (rewrite ?len_cons, ?len_app)); lnil.
(* one step of a successful run in the result monad: name the intermediate result *)
Ltac bind H :=
  match type of H with
  | rbind ?e _ = Ok _ => let E := fresh "E" in destruct e eqn:E; [cbn [rbind] in H | discriminate H]
  end.

Lemma freshen_len : forall c cl m, len (fst (freshen c cl m)) = len c.
Proof.
  induction c as [|b r IH]; intros cl m; simpl; auto.
  destruct (mem (idn (bvar b)) cl).
  - specialize (IH cl (m + 1)). destruct (freshen r cl (m + 1)) as [r' m']; simpl in *. rewrite !len_cons; lia.
  - specialize (IH (idn (bvar b) :: cl) m). destruct (freshen r (idn (bvar b) :: cl) m) as [r' m']; simpl in *.
    rewrite !len_cons; lia.
Qed.

Lemma ax_size_switch : forall v t cls, ax_size (Switch v t cls) = 1 + ax_size_cls cls.
Proof. intros; simpl; f_equal; induction cls as [|[[x cc] b] r IH]; simpl; auto; rewrite IH; auto. Qed.
Lemma ax_size_create : forall v t e cls next,
  ax_size (Create v t e cls next) = 1 + match e with Some e => len e | None => 0 end + ax_size_cls cls + ax_size next.
Proof. intros; simpl; do 2 f_equal; induction cls as [|[[x cc] b] r IH]; simpl; auto; rewrite IH; auto. Qed.
Lemma ax_nstmts_switch : forall v t cls, ax_nstmts (Switch v t cls) = 1 + ax_nstmts_cls cls.
Proof. intros; simpl; f_equal; induction cls as [|[[x cc] b] r IH]; simpl; auto; rewrite IH; auto. Qed.
Lemma ax_nstmts_create : forall v t e cls next,
  ax_nstmts (Create v t e cls next) = 1 + ax_nstmts_cls cls + ax_nstmts next.
Proof. intros; simpl; do 2 f_equal; induction cls as [|[[x cc] b] r IH]; simpl; auto; rewrite IH; auto. Qed.
Lemma ax_nbind_switch : forall v t cls, ax_nbind (Switch v t cls) = ax_nbind_cls cls.
Proof. intros; simpl; induction cls as [|[[x cc] b] r IH]; simpl; auto; rewrite IH; auto. Qed.
Lemma ax_nbind_create : forall v t e cls next,
  ax_nbind (Create v t e cls next) = 1 + ax_nbind_cls cls + ax_nbind next.
Proof. intros; simpl; do 2 f_equal; induction cls as [|[[x cc] b] r IH]; simpl; auto; rewrite IH; auto. Qed.

Lemma ax_size_subst : forall re n, ax_size (Substitute re n) = 1 + len re + ax_size n.
Proof. reflexivity. Qed.
Lemma ax_size_pos : forall s, 1 <= ax_size s.
Proof. destruct s; simpl; lia. Qed.
Lemma ax_nstmts_pos : forall s, 1 <= ax_nstmts s.
Proof. destruct s; simpl; lia. Qed.

Lemma measures_cls_sub : forall su cls,
  Forall (fun c => ax_size (sub_s su (cl_body c)) = ax_size (cl_body c) /\
                   ax_nstmts (sub_s su (cl_body c)) = ax_nstmts (cl_body c) /\
                   ax_nbind (sub_s su (cl_body c)) = ax_nbind (cl_body c)) cls ->
  let cls' := map (fun c => (cl_xtor c, cl_ctx c, sub_s su (cl_body c))) cls in
  ax_size_cls cls' = ax_size_cls cls /\ ax_nstmts_cls cls' = ax_nstmts_cls cls /\ ax_nbind_cls cls' = ax_nbind_cls cls.
Proof.
  induction cls as [|[[x cc] b] r IH]; intros HF; simpl; auto.
  inversion HF as [|? ? [H1 [H2 H3]] HF']; subst. destruct (IH HF') as [I1 [I2 I3]].
  unfold cl_body in *; simpl in *. rewrite H1, H2, H3. simpl in I1, I2, I3. rewrite I1, I2, I3. auto.
Qed.
Lemma measures_sub : forall su s,
  ax_size (sub_s su s) = ax_size s /\ ax_nstmts (sub_s su s) = ax_nstmts s /\ ax_nbind (sub_s su s) = ax_nbind s.
Proof.
  intros su s; induction s using stmt_ind2.
  - destruct IHs as [A [B C]]. simpl. rewrite A, B, C, len_map. auto.
  - simpl. rewrite len_map. auto.
  - destruct IHs as [A [B C]]. simpl. rewrite A, B, C, len_map. auto.
  - rewrite sub_s_switch, !ax_size_switch, !ax_nstmts_switch, !ax_nbind_switch.
    destruct (measures_cls_sub su cls H) as [A [B C]]. rewrite A, B, C. auto.
  - rewrite sub_s_create, !ax_size_create, !ax_nstmts_create, !ax_nbind_create.
    destruct (measures_cls_sub su cls H) as [A [B C]]. destruct IHs as [A' [B' C']].
    rewrite A, B, C, A', B', C'. destruct env; simpl; rewrite ?len_map; auto.
  - simpl. rewrite len_map. auto.
  - destruct IHs as [A [B C]]. simpl. rewrite A, B, C. auto.
  - destruct IHs as [A [B C]]. simpl. rewrite A, B, C. auto.
  - destruct IHs as [A [B C]]. simpl. rewrite A, B, C. auto.
  - destruct IHs1 as [A [B C]]. destruct IHs2 as [A' [B' C']]. simpl. rewrite A, B, C, A', B', C'. auto.
  - simpl; auto.
Qed.

(* cost of one statement when at most W variables are in scope.  The 3: a Create gains a Substitute over
   variables of the rest ++ captured environment (<= 1 + 2 W) and its environment annotation (<= W); every other
   statement gains one Substitute of at most 1 + W + its own arguments, which its size pays twice *)
Definition lin_cost (W : N) : N := 3 * (1 + W).
Definition lin_bound (s : stmt) (W : N) : N := 2 * ax_size s + ax_nstmts s * lin_cost W.

Lemma lin_cost_mono : forall a b, a <= b -> lin_cost a <= lin_cost b.
Proof. unfold lin_cost; intros; lia. Qed.
Lemma mul_cost_mono : forall n a b, a <= b -> n * lin_cost a <= n * lin_cost b.
Proof. intros. apply N.mul_le_mono_l. apply lin_cost_mono; auto. Qed.

Section Clauses.
  Variable L : stmt -> ctx -> N -> stmt * N.
  Hypothesis HL : forall s c m, ax_size (fst (L s c m)) <= 2 * ax_size s + ax_nstmts s * lin_cost (len c + ax_nbind s).
  Variable mk : ctx -> ctx.
  Variable C : N.
  Hypothesis Hmk : forall cc, len (mk cc) <= C + len cc.

  Lemma lin_cls_size : forall cls m,
    ax_size_cls (fst (lin_cls L mk cls m)) <= 2 * ax_size_cls cls + ax_nstmts_cls cls * lin_cost (C + ax_nbind_cls cls).
  Proof.
    induction cls as [|[[x cc] b] r IH]; intros m; simpl.
    - lia.
    - pose proof (HL b (mk cc) m) as Hb. destruct (L b (mk cc) m) as [b' m'] eqn:E. simpl in Hb.
      specialize (IH m'). destruct (lin_cls L mk r m') as [r' m''] eqn:E2. simpl in *.
      pose proof (Hmk cc) as Hc.
      assert (H1 : ax_nstmts b * lin_cost (len (mk cc) + ax_nbind b)
                   <= ax_nstmts b * lin_cost (C + (len cc + ax_nbind b + ax_nbind_cls r))) by (apply mul_cost_mono; lia).
      assert (H2 : ax_nstmts_cls r * lin_cost (C + ax_nbind_cls r)
                   <= ax_nstmts_cls r * lin_cost (C + (len cc + ax_nbind b + ax_nbind_cls r))) by (apply mul_cost_mono; lia).
      rewrite N.mul_add_distr_r. lia.
  Qed.
End Clauses.

Ltac mono W' W n :=
  let H := fresh "HM" in
  assert (H : n * lin_cost W' <= n * lin_cost W) by (apply mul_cost_mono; lia).

Theorem lin_size : forall fuel s c m,
  ax_size (fst (lin fuel s c m)) <= 2 * ax_size s + ax_nstmts s * lin_cost (len c + ax_nbind s).
Proof.
  induction fuel as [|f IH]; intros s c m.
  - simpl. pose proof (ax_size_pos s). lia.
  - destruct s.
    + (* Substitute: returned unchanged *) cbn [lin fst]. lia.
    + (* Call *)
      cbn [lin]. destruct (ctx_eqb c args).
      * simpl. rewrite len_nil. lia.
      * pose proof (freshen_len args [] m). destruct (freshen args [] m) as [fr m1]. simpl in *.
        pose proof (len_combine fr (vars args)). rewrite len_nil. unfold lin_cost. lia.
    + (* Let *)
      cbn [lin].
      set (nc := filter_by_set c (fv s)).
      pose proof (len_fbs c (fv s)) as Hnc. fold nc in Hnc.
      destruct (ctx_eqb c (nc ++ args)).
      * pose proof (IH s (nc ++ [mkb v Prd t]) m) as I. destruct (lin f s (nc ++ [mkb v Prd t]) m) as [n' m1].
        simpl in *. rewrite len_app, len_cons, len_nil in I.
        mono (len nc + (1 + 0) + ax_nbind s) (len c + (1 + ax_nbind s)) (ax_nstmts s).
        rewrite N.mul_add_distr_r. lia.
      * pose proof (freshen_len args (ids nc) m) as Hf. destruct (freshen args (ids nc) m) as [args' m1].
        pose proof (IH s (nc ++ [mkb v Prd t]) m1) as I. destruct (lin f s (nc ++ [mkb v Prd t]) m1) as [n' m2].
        simpl in *. rewrite len_app, len_cons, len_nil in I.
        pose proof (len_combine (nc ++ args') (vars (nc ++ args))) as Hc. rewrite len_app in Hc.
        mono (len nc + (1 + 0) + ax_nbind s) (len c + (1 + ax_nbind s)) (ax_nstmts s).
        rewrite N.mul_add_distr_r. unfold lin_cost at 1. lia.
    + (* Switch *)
      cbn [lin].
      set (nc := filter_by_set c (fv_clauses cls)).
      pose proof (len_fbs c (fv_clauses cls)) as Hnc. fold nc in Hnc.
      pose proof (lin_cls_size (lin f) IH (fun cc => nc ++ cc) (len c)) as HC.
      specialize (HC ltac:(intros cc; cbv beta; rewrite len_app; lia) cls m).
      destruct (lin_cls (lin f) (fun cc => nc ++ cc) cls m) as [cls' m1]. simpl in HC.
      rewrite ax_nbind_switch, ax_nstmts_switch, ax_size_switch.
      destruct (ctx_eqb c (nc ++ [mkb v Prd t])).
      * cbn [fst]. rewrite ax_size_switch. rewrite N.mul_add_distr_r. lia.
      * destruct (mem (idn v) (ids nc)); cbn [fst]; rewrite ax_size_subst, ax_size_switch;
          match goal with |- context [len (combine ?a ?b)] => pose proof (len_combine a b) as Hc end;
          rewrite len_app, len_cons, len_nil in Hc; rewrite N.mul_add_distr_r; unfold lin_cost at 1; lia.
    + (* Create *)
      cbn [lin].
      set (cn := filter_by_set c (fv s)).
      set (k := List.length cn).
      set (cc_ := filter_by_set (skipn k c ++ firstn k c) (fv_clauses cls)).
      pose proof (len_fbs c (fv s)) as Hcn. fold cn in Hcn.
      pose proof (len_fbs (skipn k c ++ firstn k c) (fv_clauses cls)) as Hcc. fold cc_ in Hcc. rewrite len_rot in Hcc.
      pose proof (lin_cls_size (lin f) IH (fun cc => cc ++ cc_) (len c)) as HC.
      specialize (HC ltac:(intros cc; cbv beta; rewrite len_app; lia) cls m).
      destruct (lin_cls (lin f) (fun cc => cc ++ cc_) cls m) as [cls' m1]. simpl in HC.
      rewrite ax_nbind_create, ax_nstmts_create, ax_size_create.
      mono (len c + ax_nbind_cls cls) (len c + (1 + ax_nbind_cls cls + ax_nbind s)) (ax_nstmts_cls cls).
      destruct (ctx_eqb c (cn ++ cc_)).
      * pose proof (IH s (cn ++ [mkb v Cns t]) m1) as I. destruct (lin f s (cn ++ [mkb v Cns t]) m1) as [n' m2].
        cbn [fst] in *. rewrite ax_size_create. rewrite len_app, len_cons, len_nil in I.
        mono (len cn + (1 + 0) + ax_nbind s) (len c + (1 + ax_nbind_cls cls + ax_nbind s)) (ax_nstmts s).
        rewrite !N.mul_add_distr_r. unfold lin_cost at 1. destruct env; lia.
      * pose proof (freshen_len cn (ids cc_) m1) as Hf. destruct (freshen cn (ids cc_) m1) as [cnf m2]. cbn [fst] in Hf.
        set (su := combine (ids cn) (vars cnf)).
        destruct (measures_sub su s) as [S1 [S2 S3]].
        pose proof (IH (sub_s su s) (cnf ++ [mkb v Cns t]) m2) as I.
        destruct (lin f (sub_s su s) (cnf ++ [mkb v Cns t]) m2) as [n' m3].
        cbn [fst] in *. rewrite S1, S2, S3 in I. rewrite len_app, len_cons, len_nil in I.
        rewrite ax_size_subst, ax_size_create.
        match goal with |- context [len (combine ?a ?b)] => pose proof (len_combine a b) as Hc end.
        rewrite len_app in Hc.
        mono (len cnf + (1 + 0) + ax_nbind s) (len c + (1 + ax_nbind_cls cls + ax_nbind s)) (ax_nstmts s).
        rewrite !N.mul_add_distr_r. unfold lin_cost at 1. destruct env; lia.
    + (* Invoke *)
      cbn [lin]. destruct (ctx_eqb c (args ++ [mkb v Cns t])).
      * simpl. rewrite len_nil. lia.
      * pose proof (freshen_len args [idn v] m). destruct (freshen args [idn v] m) as [fr m1]. simpl in *.
        match goal with |- context [len (combine ?a ?b)] => pose proof (len_combine a b) as Hc end.
        rewrite len_app, len_cons, !len_nil in *. unfold lin_cost. lia.
    + (* Literal *)
      cbn [lin].
      set (nc := filter_by_set c (fv s)). pose proof (len_fbs c (fv s)) as Hnc. fold nc in Hnc.
      pose proof (IH s (nc ++ [mkb v Ext I64]) m) as I. destruct (lin f s (nc ++ [mkb v Ext I64]) m) as [n' m1].
      rewrite len_app, len_cons, len_nil in I. cbn [fst] in I.
      mono (len nc + (1 + 0) + ax_nbind s) (len c + (1 + ax_nbind s)) (ax_nstmts s).
      destruct (ctx_eqb c nc); simpl; rewrite N.mul_add_distr_r.
      * lia.
      * pose proof (len_combine nc (vars nc)). unfold self_re. unfold lin_cost at 1. lia.
    + (* Op *)
      cbn [lin].
      set (nc := filter_by_set c (add (idn b) (add (idn a) (fv s)))).
      pose proof (len_fbs c (add (idn b) (add (idn a) (fv s)))) as Hnc. fold nc in Hnc.
      pose proof (IH s (nc ++ [mkb v Ext I64]) m) as I. destruct (lin f s (nc ++ [mkb v Ext I64]) m) as [n' m1].
      rewrite len_app, len_cons, len_nil in I. cbn [fst] in I.
      mono (len nc + (1 + 0) + ax_nbind s) (len c + (1 + ax_nbind s)) (ax_nstmts s).
      destruct (ctx_eqb c nc); simpl; rewrite N.mul_add_distr_r.
      * lia.
      * pose proof (len_combine nc (vars nc)). unfold self_re. unfold lin_cost at 1. lia.
    + (* PrintI64 *)
      cbn [lin].
      set (nc := filter_by_set c (add (idn v) (fv s))).
      pose proof (len_fbs c (add (idn v) (fv s))) as Hnc. fold nc in Hnc.
      pose proof (IH s nc m) as I. destruct (lin f s nc m) as [n' m1]. cbn [fst] in I.
      mono (len nc + ax_nbind s) (len c + ax_nbind s) (ax_nstmts s).
      destruct (ctx_eqb c nc); simpl; rewrite N.mul_add_distr_r.
      * lia.
      * pose proof (len_combine nc (vars nc)). unfold self_re. unfold lin_cost at 1. lia.
    + (* IfC *)
      cbn [lin].
      pose proof (IH s2 c m) as I1. destruct (lin f s2 c m) as [t' m1].
      pose proof (IH s3 c m1) as I2. destruct (lin f s3 c m1) as [e' m2]. cbn [fst] in *.
      simpl.
      mono (len c + ax_nbind s2) (len c + (ax_nbind s2 + ax_nbind s3)) (ax_nstmts s2).
      mono (len c + ax_nbind s3) (len c + (ax_nbind s2 + ax_nbind s3)) (ax_nstmts s3).
      rewrite !N.mul_add_distr_r. lia.
    + (* Exit *) simpl. lia.
Qed.

Lemma lin_def_size : forall d m,
  ax_size_def (fst (lin_def d m)) <= 2 * ax_size_def d + ax_nstmts (dbody d) * lin_cost (ax_width_def d).
Proof.
  intros d m. unfold lin_def.
  pose proof (lin_size (stmt_size (dbody d)) (dbody d) (dctx d) m) as H.
  destruct (lin (stmt_size (dbody d)) (dbody d) (dctx d) m) as [b m1]. unfold ax_size_def, ax_width_def in *; simpl in *. lia.
Qed.

Lemma lin_defs_size : forall ds m,
  ax_size_defs (fst (lin_defs ds m)) <= 2 * ax_size_defs ds + ax_nstmts_defs ds * lin_cost (ax_width_defs ds).
Proof.
  induction ds as [|d r IH]; intros m; simpl; [lia|].
  pose proof (lin_def_size d m) as Hd. destruct (lin_def d m) as [d' m1]. specialize (IH m1).
  destruct (lin_defs r m1) as [r' m2]. simpl in *.
  mono (ax_width_def d) (N.max (ax_width_def d) (ax_width_defs r)) (ax_nstmts (dbody d)).
  mono (ax_width_defs r) (N.max (ax_width_def d) (ax_width_defs r)) (ax_nstmts_defs r).
  rewrite N.mul_add_distr_r. lia.
Qed.

(* the number of statements is at most the size; the headline form *)
Lemma ax_nstmts_le_size_cls : forall cls,
  Forall (fun c => ax_nstmts (cl_body c) <= ax_size (cl_body c)) cls -> ax_nstmts_cls cls <= ax_size_cls cls.
Proof. induction cls as [|[[x cc] b] r IH]; intros HF; simpl; [lia|]. inversion HF; subst. unfold cl_body in *; simpl in *. specialize (IH H2). lia. Qed.
Lemma ax_nstmts_le_size : forall s, ax_nstmts s <= ax_size s.
Proof.
  induction s using stmt_ind2; try (simpl; lia).
  - rewrite ax_nstmts_switch, ax_size_switch. pose proof (ax_nstmts_le_size_cls cls H). lia.
  - rewrite ax_nstmts_create, ax_size_create. pose proof (ax_nstmts_le_size_cls cls H). lia.
Qed.
Lemma ax_nstmts_defs_le : forall ds, ax_nstmts_defs ds <= ax_size_defs ds.
Proof. induction ds as [|d r IH]; simpl; [lia|]. pose proof (ax_nstmts_le_size (dbody d)). unfold ax_size_def. lia. Qed.

Theorem linearize_size_lemma : forall p,
  ax_size_prog (linearize p) <= 2 * ax_size_prog p + 3 * ax_nstmts_prog p * (1 + ax_width_prog p).
Proof.
  intros p. unfold linearize, ax_size_prog, ax_nstmts_prog, ax_width_prog.
  pose proof (lin_defs_size (pdefs p) (pmax p)) as H. destruct (lin_defs (pdefs p) (pmax p)) as [ds m]. simpl in *.
  unfold lin_cost in H. lia.
Qed.

Corollary linearize_size_poly_lemma : forall p,
  ax_size_prog (linearize p) <= ax_size_prog p * (5 + 3 * ax_width_prog p).
Proof.
  intros p. pose proof (linearize_size_lemma p) as H. pose proof (ax_nstmts_defs_le (pdefs p)) as Hn.
  unfold ax_nstmts_prog, ax_size_prog in *.
  assert (3 * ax_nstmts_defs (pdefs p) * (1 + ax_width_prog p) <= 3 * ax_size_defs (pdefs p) * (1 + ax_width_prog p)).
  { apply N.mul_le_mono_r. lia. }
  lia.
Qed.
