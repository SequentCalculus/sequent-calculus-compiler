(* C05, main syntactic theorem: the output of the model of `linearize` satisfies the ordered
   linear discipline (`lin_check`), for every definition that is typed in the non-linear
   discipline, whose binders are unique and whose ids are below max_id.
   Induction on the fuel of `lin` (the size of the statement), one lemma per statement form. *)
From Coq Require Import String List ZArith NArith Bool Lia Permutation.
From SCC Require Import Base.Sexp Lang.AxSyn Model.Linearize Model.LinCheck.
From SCC Require Import Proof.LinBasics Proof.LinFbs Proof.LinFreshen Proof.LinTyping Proof.LinSubst.
Import ListNotations.
Open Scope list_scope.
Open Scope N_scope.

Definition inv (c : ctx) (s : stmt) (m : N) : Prop :=
  NoDup (ids c) /\ NoDup (binders s) /\
  (forall x, In x (ids c) -> ~ In x (binders s)) /\
  (forall x, In x (ids c) -> x <= m) /\ (forall x, In x (binders s) -> x <= m).

Lemma NoDup_app_iff : forall {A} (a b : list A),
  NoDup (a ++ b) <-> NoDup a /\ NoDup b /\ (forall x, In x a -> In x b -> False).
Proof.
  induction a as [|y a IH]; intros b; simpl.
  - split; [intros H; repeat split; auto; constructor|tauto].
  - split.
    + intros H. inversion H as [|? ? Hn Hnd]; subst. apply IH in Hnd. destruct Hnd as [H1 [H2 H3]].
      split; [constructor; auto; intros Hin; apply Hn; apply in_or_app; auto|].
      split; auto. intros x [<-|Hx] Hb; [apply Hn; apply in_or_app; auto|eauto].
    + intros [H1 [H2 H3]]. inversion H1 as [|? ? Hn Hnd]; subst. constructor.
      * intros Hin. apply in_app_or in Hin. destruct Hin; [auto|]. eapply H3; eauto.
      * apply IH. repeat split; auto. intros x Hx Hb. eapply H3; eauto.
Qed.

Lemma inv_of_nodup : forall c s m,
  NoDup (ids c ++ binders s) -> (forall x, In x (ids c ++ binders s) -> x <= m) -> inv c s m.
Proof.
  intros c s m H1 H2. apply NoDup_app_iff in H1. destruct H1 as [H3 [H4 H5]].
  split; [auto|]. split; [auto|]. split; [|split].
  - intros x Hx Hb. apply (H5 x Hx Hb).
  - intros x Hx. apply H2. apply in_or_app; auto.
  - intros x Hx. apply H2. apply in_or_app; auto.
Qed.

(* the invariant for a sub-statement s' in a context c' whose ids come from the old context, from
   binders of s outside s', or are fresh *)
Lemma inv_gen : forall c s m c' s' m' pre post,
  inv c s m -> m <= m' -> NoDup (ids c') ->
  binders s = pre ++ binders s' ++ post ->
  (forall x, In x (ids c') -> In x (ids c) \/ In x pre \/ In x post \/ (m < x /\ x <= m')) ->
  inv c' s' m'.
Proof.
  intros c s m c' s' m' pre post [I1 [I2 [I3 [I4 I5]]]] Hm Hnd Hb Hc.
  rewrite Hb in *. apply NoDup_app_iff in I2. destruct I2 as [P1 [P2 P3]].
  apply NoDup_app_iff in P2. destruct P2 as [P4 [P5 P6]].
  split; [auto|]. split; [auto|]. split; [|split].
  - intros x Hx Hs. destruct (Hc x Hx) as [H|[H|[H|H]]].
    + apply (I3 x H). apply in_or_app. right. apply in_or_app. auto.
    + apply (P3 x H). apply in_or_app. auto.
    + apply (P6 x Hs H).
    + assert (x <= m) by (apply I5; apply in_or_app; right; apply in_or_app; auto). lia.
  - intros x Hx. destruct (Hc x Hx) as [H|[H|[H|H]]].
    + apply I4 in H. lia.
    + assert (x <= m) by (apply I5; apply in_or_app; auto). lia.
    + assert (x <= m) by (apply I5; apply in_or_app; right; apply in_or_app; auto). lia.
    + lia.
  - intros x Hx. assert (x <= m) by (apply I5; apply in_or_app; right; apply in_or_app; auto). lia.
Qed.
Lemma inv_ifc : forall c so a b t e m m',
  inv c (IfC so a b t e) m -> m <= m' -> inv c t m' /\ inv c e m'.
Proof.
  intros c so a b t e m m' Hinv Hm. split.
  - apply inv_gen with (c := c) (s := IfC so a b t e) (m := m) (pre := []) (post := binders e);
      [exact Hinv|exact Hm|apply Hinv|reflexivity|auto].
  - apply inv_gen with (c := c) (s := IfC so a b t e) (m := m) (pre := binders t) (post := []);
      [exact Hinv|exact Hm|apply Hinv|simpl; rewrite app_nil_r; auto|auto].
Qed.

Lemma stmt_size_pos : forall s, (1 <= stmt_size s)%nat.
Proof. destruct s; simpl; lia. Qed.

Lemma NoDup_snoc : forall (l : list N) x, NoDup l -> ~ In x l -> NoDup (l ++ [x]).
Proof.
  intros l x H Hn. apply NoDup_app_iff. repeat split; auto.
  - constructor; [simpl; tauto|constructor].
  - intros y Hy [<-|[]]. auto.
Qed.

Lemma subst_ok : forall S c newc oldc body,
  NoDup (ids c) -> same_kt newc oldc -> (forall b, In b oldc -> has_b c b = true) ->
  lin_check S newc body = true ->
  lin_check S c (Substitute (combine newc (vars oldc)) body) = true.
Proof.
  intros S c newc oldc body Hnd Hkt Hin Hbody.
  assert (Hlen : length newc = length (vars oldc)).
  { rewrite vars_length. apply same_kt_length; auto. }
  simpl. rewrite (combine_map_fst _ _ Hlen), Hbody, andb_true_r.
  apply andb_true_iff; split; [apply nodupb_NoDup; auto|].
  clear Hbody Hlen. induction Hkt as [|x y newc oldc [K1 K2] Hkt IH]; simpl; auto.
  apply andb_true_iff; split.
  - specialize (Hin y (or_introl eq_refl)). unfold has_b in Hin. rewrite K1, K2. auto.
  - apply IH. intros b Hb. apply Hin. simpl; auto.
Qed.
Lemma self_subst_ok : forall S c nc body,
  NoDup (ids c) -> NoDup (ids nc) -> (forall b, In b nc -> In b c) ->
  lin_check S nc body = true ->
  lin_check S c (Substitute (self_re nc) body) = true.
Proof.
  intros. unfold self_re. apply subst_ok; auto.
  - apply same_kt_refl.
  - intros b Hb. apply has_b_In; auto.
Qed.

(* the lookups of `vb :: c` and of `filter_by_set c F ++ [vb]` agree on F and on vb *)
Lemma lookup_snoc_fbs : forall c F vb x,
  NoDup (ids c) -> ~ In (idn (bvar vb)) (ids c) -> (In x F \/ x = idn (bvar vb)) ->
  lookup_b (vb :: c) x = lookup_b (filter_by_set c F ++ [vb]) x.
Proof.
  intros c F vb x Hnd Hv Hx. rewrite lookup_b_cons, lookup_b_app, fbs_lookup by auto.
  destruct (N.eqb (idn (bvar vb)) x) eqn:E.
  - apply N.eqb_eq in E. subst x.
    assert (Hn : lookup_b c (idn (bvar vb)) = None) by (apply lookup_b_None; auto).
    rewrite Hn. destruct (mem (idn (bvar vb)) F); simpl; rewrite N.eqb_refl; auto.
  - apply N.eqb_neq in E. destruct Hx as [Hx|Hx]; [|congruence].
    apply mem_In in Hx. rewrite Hx. destruct (lookup_b c x); auto.
    simpl. apply N.eqb_neq in E. rewrite E. auto.
Qed.
Lemma lookup_fbs_sub : forall c F x, NoDup (ids c) -> In x F -> lookup_b c x = lookup_b (filter_by_set c F) x.
Proof. intros c F x Hnd Hx. rewrite fbs_lookup by auto. apply mem_In in Hx. rewrite Hx. auto. Qed.
Lemma fbs_ids_incl : forall c F x, In x (ids (filter_by_set c F)) -> In x (ids c).
Proof. intros c F x H. apply fbs_ids_In in H. tauto. Qed.

Lemma lin_cls_spec : forall (L : stmt -> ctx -> N -> stmt * N) mk (Q : clause -> stmt -> N -> Prop) cls m,
  (forall cl b a a', Q cl b a -> a <= a' -> Q cl b a') ->
  (forall cl m0, In cl cls -> m <= m0 ->
     Q cl (fst (L (cl_body cl) (mk (cl_ctx cl)) m0)) (snd (L (cl_body cl) (mk (cl_ctx cl)) m0)) /\
     m0 <= snd (L (cl_body cl) (mk (cl_ctx cl)) m0)) ->
  m <= snd (lin_cls L mk cls m) /\
  Forall2 (fun cl cl' => cl_xtor cl' = cl_xtor cl /\ cl_ctx cl' = cl_ctx cl /\
                         Q cl (cl_body cl') (snd (lin_cls L mk cls m)))
          cls (fst (lin_cls L mk cls m)).
Proof.
  intros L mk Q cls; induction cls as [|[[x cc] body] r IH]; intros m Hmono H; simpl.
  - split; [lia|constructor].
  - destruct (H (x, cc, body) m (or_introl eq_refl)) as [H1 H2]; [lia|].
    unfold cl_body, cl_ctx in H1, H2; simpl in H1, H2.
    destruct (L body (mk cc) m) as [b' m'] eqn:E. simpl in *.
    destruct (IH m' Hmono) as [H3 H4].
    { intros cl m0 Hcl Hm0. apply H; auto. lia. }
    destruct (lin_cls L mk r m') as [r' m''] eqn:E'. simpl in *.
    split; [lia|]. constructor; auto.
    repeat split; auto. eapply Hmono; eauto.
Qed.
Lemma cls_sig_F2 : forall (Q : clause -> stmt -> Prop) cls cls' xs,
  Forall2 (fun cl cl' => cl_xtor cl' = cl_xtor cl /\ cl_ctx cl' = cl_ctx cl /\ Q cl (cl_body cl')) cls cls' ->
  cls_sig cls' xs = cls_sig cls xs.
Proof.
  intros Q cls cls' xs H; revert xs; induction H as [|cl cl' cls cls' [H1 [H2 H3]] H IH]; intros [|x xs]; simpl; auto.
  rewrite H1, H2, IH; auto.
Qed.
Lemma cls_ok_F2 : forall S t (Q : clause -> stmt -> Prop) cls cls',
  Forall2 (fun cl cl' => cl_xtor cl' = cl_xtor cl /\ cl_ctx cl' = cl_ctx cl /\ Q cl (cl_body cl')) cls cls' ->
  cls_ok S t cls' = cls_ok S t cls.
Proof. intros; unfold cls_ok. destruct (type_xtors S t); auto. eapply cls_sig_F2; eauto. Qed.
Lemma forallb_F2 : forall (P : clause -> bool) (Q : clause -> stmt -> Prop) cls cls',
  Forall2 (fun cl cl' => cl_xtor cl' = cl_xtor cl /\ cl_ctx cl' = cl_ctx cl /\ Q cl (cl_body cl')) cls cls' ->
  (forall cl cl', cl_ctx cl' = cl_ctx cl -> Q cl (cl_body cl') -> P cl' = true) ->
  forallb P cls' = true.
Proof.
  intros P Q cls cls' H HP; induction H as [|cl cl' cls cls' [H1 [H2 H3]] H IH]; simpl; auto.
  rewrite (HP cl cl'); auto.
Qed.

Lemma binders_cls_split : forall cls cl, In cl cls ->
  exists pre post, binders_cls cls = pre ++ (ids (cl_ctx cl) ++ binders (cl_body cl)) ++ post.
Proof.
  induction cls as [|c0 r IH]; intros cl H; simpl in *; [tauto|].
  destruct H as [->|H].
  - exists [], (binders_cls r). simpl. rewrite <- app_assoc. auto.
  - destruct (IH cl H) as [pre [post E]]. rewrite E.
    exists (ids (cl_ctx c0) ++ binders (cl_body c0) ++ pre), post.
    rewrite <- !app_assoc. auto.
Qed.

Lemma lin_call : forall f l args c m,
  lin (S f) (Call l args) c m =
  if ctx_eqb c args then (Call l [], m)
  else let '(fr, m1) := freshen args [] m in (Substitute (combine fr (vars args)) (Call l []), m1).
Proof. reflexivity. Qed.
Lemma lin_let : forall f v t tag args next c m,
  lin (S f) (Let v t tag args next) c m =
  let nc := filter_by_set c (fv next) in
  if ctx_eqb c (nc ++ args) then
    let '(n', m1) := lin f next (nc ++ [mkb v Prd t]) m in (Let v t tag args n', m1)
  else
    let '(args', m1) := freshen args (ids nc) m in
    let '(n', m2) := lin f next (nc ++ [mkb v Prd t]) m1 in
    (Substitute (combine (nc ++ args') (vars (nc ++ args))) (Let v t tag args' n'), m2).
Proof. reflexivity. Qed.
Lemma lin_switch : forall f v t cls c m,
  lin (S f) (Switch v t cls) c m =
  let nc := filter_by_set c (fv_clauses cls) in
  let '(cls', m1) := lin_cls (lin f) (fun cc => nc ++ cc) cls m in
  if ctx_eqb c (nc ++ [mkb v Prd t]) then (Switch v t cls', m1)
  else
    let '(v', m2) := if mem (idn v) (ids nc) then ((fst v, m1 + 1), m1 + 1) else (v, m1) in
    (Substitute (combine (nc ++ [mkb v' Prd t]) (vars (nc ++ [mkb v Prd t]))) (Switch v' t cls'), m2).
Proof. reflexivity. Qed.
Lemma lin_create : forall f v t e cls next c m,
  lin (S f) (Create v t e cls next) c m =
  let cn := filter_by_set c (fv next) in
  let k := length cn in
  let cc := filter_by_set (skipn k c ++ firstn k c) (fv_clauses cls) in
  let '(cls', m1) := lin_cls (lin f) (fun x => x ++ cc) cls m in
  if ctx_eqb c (cn ++ cc) then
    let '(n', m2) := lin f next (cn ++ [mkb v Cns t]) m1 in
    (Create v t (Some cc) cls' n', m2)
  else
    let '(cnf, m2) := freshen cn (ids cc) m1 in
    let '(n', m3) := lin f (sub_s (combine (ids cn) (vars cnf)) next) (cnf ++ [mkb v Cns t]) m2 in
    (Substitute (combine (cnf ++ cc) (vars (cn ++ cc))) (Create v t (Some cc) cls' n'), m3).
Proof. reflexivity. Qed.
Lemma lin_invoke : forall f v tag t args c m,
  lin (S f) (Invoke v tag t args) c m =
  if ctx_eqb c (args ++ [mkb v Cns t]) then (Invoke v tag t [], m)
  else let '(fr, m1) := freshen args [idn v] m in
       (Substitute (combine (fr ++ [mkb v Cns t]) (vars (args ++ [mkb v Cns t]))) (Invoke v tag t []), m1).
Proof. reflexivity. Qed.
Lemma lin_literal : forall f n v next c m,
  lin (S f) (Literal n v next) c m =
  let nc := filter_by_set c (fv next) in
  let '(n', m1) := lin f next (nc ++ [mkb v Ext I64]) m in
  if ctx_eqb c nc then (Literal n v n', m1) else (Substitute (self_re nc) (Literal n v n'), m1).
Proof. reflexivity. Qed.
Lemma lin_op : forall f a o b v next c m,
  lin (S f) (Op a o b v next) c m =
  let nc := filter_by_set c (add (idn b) (add (idn a) (fv next))) in
  let '(n', m1) := lin f next (nc ++ [mkb v Ext I64]) m in
  if ctx_eqb c nc then (Op a o b v n', m1) else (Substitute (self_re nc) (Op a o b v n'), m1).
Proof. reflexivity. Qed.
Lemma lin_print : forall f nl v next c m,
  lin (S f) (PrintI64 nl v next) c m =
  let nc := filter_by_set c (add (idn v) (fv next)) in
  let '(n', m1) := lin f next nc m in
  if ctx_eqb c nc then (PrintI64 nl v n', m1) else (Substitute (self_re nc) (PrintI64 nl v n'), m1).
Proof. reflexivity. Qed.
Lemma lin_ifc : forall f so a b t e c m,
  lin (S f) (IfC so a b t e) c m =
  let '(t', m1) := lin f t c m in let '(e', m2) := lin f e c m1 in (IfC so a b t' e', m2).
Proof. reflexivity. Qed.
Lemma lin_exit : forall f v c m, lin (S f) (Exit v) c m = (Exit v, m).
Proof. reflexivity. Qed.


Lemma ctx_match_length : forall a b, ctx_match a b = true -> length a = length b.
Proof.
  induction a as [|x a IH]; intros [|y b] H; simpl in *; try discriminate; auto.
  btrue. f_equal; auto.
Qed.
Lemma args_ok_same_kt : forall S t tag a a', same_kt a' a -> args_ok S t tag a = true -> args_ok S t tag a' = true.
Proof.
  unfold args_ok; intros S t tag a a' H. destruct (lookup_xtor S t tag); auto.
  apply sig_match_same_kt; auto.
Qed.
Lemma lin_check_let_intro : forall S c0 tl v t tag args next,
  NoDup (ids (c0 ++ tl)) -> ctx_match tl args = true -> args_ok S t tag args = true ->
  lin_check S (c0 ++ [mkb v Prd t]) next = true ->
  lin_check S (c0 ++ tl) (Let v t tag args next) = true.
Proof.
  intros S c0 tl v t tag args next Hnd Hm Ha Hn. simpl.
  rewrite <- (ctx_match_length _ _ Hm), split_lastn_app, Hm, Ha, Hn.
  rewrite !andb_true_r. apply nodupb_NoDup; auto.
Qed.
Lemma lin_check_switch_intro : forall S c0 b v t cls,
  NoDup (ids (c0 ++ [b])) -> idn (bvar b) = idn v -> bchi b = Prd -> bty b = t ->
  cls_ok S t cls = true -> lin_clauses_sw S c0 cls = true ->
  lin_check S (c0 ++ [b]) (Switch v t cls) = true.
Proof.
  intros S c0 b v t cls Hnd Hi Hc Ht Hk Hl. rewrite lin_check_switch.
  change 1%nat with (length [b]). rewrite split_lastn_app, Hi, Hc, Ht, Hk, Hl.
  rewrite N.eqb_refl, ty_eqb_refl. simpl. rewrite andb_true_r. apply nodupb_NoDup; auto.
Qed.
Lemma lin_check_create_intro : forall S c0 env v t cls next,
  NoDup (ids (c0 ++ env)) -> cls_ok S t cls = true -> lin_clauses_cr S env cls = true ->
  lin_check S (c0 ++ [mkb v Cns t]) next = true ->
  lin_check S (c0 ++ env) (Create v t (Some env) cls next) = true.
Proof.
  intros S c0 env v t cls next Hnd Hk Hl Hn. rewrite lin_check_create.
  rewrite split_lastn_app, ctx_match_refl, Hk, Hl, Hn. simpl. rewrite andb_true_r. apply nodupb_NoDup; auto.
Qed.
Lemma lin_check_invoke_intro : forall S c0 b v tag t args,
  NoDup (ids (c0 ++ [b])) -> idn (bvar b) = idn v -> bchi b = Cns -> bty b = t ->
  args_ok S t tag c0 = true ->
  lin_check S (c0 ++ [b]) (Invoke v tag t args) = true.
Proof.
  intros S c0 b v tag t args Hnd Hi Hc Ht Ha. simpl.
  change 1%nat with (length [b]). rewrite split_lastn_app, Hi, Hc, Ht, Ha.
  rewrite N.eqb_refl, ty_eqb_refl. simpl. rewrite andb_true_r. apply nodupb_NoDup; auto.
Qed.


Lemma reorder_perm : forall {A} k (c : list A), Permutation (skipn k c ++ firstn k c) c.
Proof.
  intros. eapply Permutation_trans; [apply Permutation_app_comm|]. rewrite firstn_skipn. apply Permutation_refl.
Qed.
Lemma reorder_In : forall {A} k (c : list A) b, In b (skipn k c ++ firstn k c) <-> In b c.
Proof.
  intros; split; intros H.
  - eapply Permutation_in; [apply reorder_perm|]; eauto.
  - eapply Permutation_in; [apply Permutation_sym, reorder_perm|]; eauto.
Qed.
Lemma reorder_NoDup : forall k (c : ctx), NoDup (ids c) -> NoDup (ids (skipn k c ++ firstn k c)).
Proof.
  intros k c H. unfold ids. eapply Permutation_NoDup; [apply Permutation_sym, Permutation_map, reorder_perm|]. auto.
Qed.
(* switch clauses: `cc ++ c` and `filter_by_set c F ++ cc` look up alike on cc and F *)
Lemma lookup_clause_sw : forall c F cc x,
  NoDup (ids c) -> (forall y, In y (ids cc) -> ~ In y (ids c)) -> (In x (ids cc) \/ In x F) ->
  lookup_b (cc ++ c) x = lookup_b (filter_by_set c F ++ cc) x.
Proof.
  intros c F cc x Hnd Hd Hx. rewrite !lookup_b_app, fbs_lookup by auto.
  destruct (lookup_b cc x) as [b|] eqn:E.
  - assert (Hin : In x (ids cc)).
    { apply lookup_b_Some in E. destruct E as [E1 E2]. subst; apply In_ids; auto. }
    assert (Hn : lookup_b c x = None) by (apply lookup_b_None; auto).
    rewrite Hn. destruct (mem x F); auto.
  - destruct Hx as [Hx|Hx]; [apply lookup_b_None in E; tauto|].
    apply mem_In in Hx. rewrite Hx. destruct (lookup_b c x); auto.
Qed.
Lemma binders_cls_ctx_NoDup : forall cls cl, NoDup (binders_cls cls) -> In cl cls -> NoDup (ids (cl_ctx cl)).
Proof.
  intros cls cl H Hin. destruct (binders_cls_split cls cl Hin) as [pre [post E]]. rewrite E in H.
  apply NoDup_app_iff in H. destruct H as [_ [H _]].
  apply NoDup_app_iff in H. destruct H as [H _].
  apply NoDup_app_iff in H. tauto.
Qed.

(* the renaming Create applies to `next`: the i-th variable of context_next goes to the i-th
   variable of its freshened version *)
Lemma ren_lookup : forall cn cnf, same_shape cn cnf -> NoDup (ids cn) ->
  forall b, In b cn ->
  exists b', In b' cnf /\ sub_n (combine (ids cn) (vars cnf)) (idn (bvar b)) = idn (bvar b') /\
             bchi b' = bchi b /\ bty b' = bty b.
Proof.
  intros cn cnf H; induction H as [|x y cn cnf [K1 [K2 K3]] H IH]; intros Hnd b Hb; simpl in *; [tauto|].
  inversion Hnd as [|? ? Hn Hnd']; subst.
  destruct Hb as [<-|Hb].
  - exists y. unfold sub_n; simpl. rewrite N.eqb_refl. simpl. auto.
  - destruct (IH Hnd' b Hb) as [b' [B1 [B2 B3]]]. exists b'. split; auto. split; auto.
    unfold sub_n in *; simpl.
    destruct (N.eqb (idn (bvar x)) (idn (bvar b))) eqn:E; auto.
    apply N.eqb_eq in E. exfalso. apply Hn. rewrite E. apply In_ids; auto.
Qed.
Lemma su_fst : forall cn cnf, same_shape cn cnf -> map fst (combine (ids cn) (vars cnf)) = ids cn.
Proof.
  intros. apply combine_map_fst. rewrite ids_length, vars_length. apply same_shape_length; auto.
Qed.
Lemma su_snd : forall cn cnf, same_shape cn cnf ->
  map (fun p : N * ident => idn (snd p)) (combine (ids cn) (vars cnf)) = ids cnf.
Proof.
  intros cn cnf H. rewrite <- (map_map snd idn). rewrite combine_map_snd.
  - apply ids_vars.
  - rewrite ids_length, vars_length. apply same_shape_length; auto.
Qed.

Ltac fin := repeat (apply andb_true_iff; split); try assumption; try (apply nodupb_NoDup; assumption).

Fixpoint binders_ns_cls (cls : list clause) : list N :=
  match cls with
  | [] => []
  | c :: r => ids (cl_ctx c) ++ binders_ns (cl_body c) ++ binders_ns_cls r
  end.
Lemma binders_ns_switch : forall v t cls, binders_ns (Switch v t cls) = binders_ns_cls cls.
Proof. intros; simpl. induction cls as [|[[x cc] b] r IH]; simpl; auto; try (rewrite IH; auto). Qed.
Lemma binders_ns_create : forall v t e cls next,
  binders_ns (Create v t e cls next) = idn v :: binders_ns_cls cls ++ binders_ns next.
Proof.
  intros; simpl. f_equal. f_equal. induction cls as [|[[x cc] b] r IH]; simpl; auto; try (rewrite IH; auto).
Qed.
Lemma binders_subst : forall (newc : ctx) (olds : list ident) body, length newc = length olds ->
  binders (Substitute (combine newc olds) body) = ids newc ++ binders body.
Proof.
  intros newc olds body H. simpl. f_equal.
  rewrite <- (map_map fst (fun b => idn (bvar b))). rewrite combine_map_fst; auto.
Qed.
Lemma bns_cls_F2 : forall (Q : clause -> stmt -> Prop) cls cls',
  Forall2 (fun cl cl' => cl_xtor cl' = cl_xtor cl /\ cl_ctx cl' = cl_ctx cl /\ Q cl (cl_body cl')) cls cls' ->
  (forall cl b, Q cl b -> binders_ns b = binders (cl_body cl)) ->
  binders_ns_cls cls' = binders_cls cls.
Proof.
  intros Q cls cls' H HQ; induction H as [|cl cl' cls cls' [H1 [H2 H3]] H IH]; simpl; auto.
  rewrite H2, (HQ _ _ H3), IH. auto.
Qed.
Lemma bound_cls_F2 : forall (Q : clause -> stmt -> Prop) cls cls' a,
  Forall2 (fun cl cl' => cl_xtor cl' = cl_xtor cl /\ cl_ctx cl' = cl_ctx cl /\ Q cl (cl_body cl')) cls cls' ->
  (forall cl b, Q cl b -> forall x, In x (binders b) -> x <= a) ->
  (forall x, In x (binders_cls cls) -> x <= a) ->
  forall x, In x (binders_cls cls') -> x <= a.
Proof.
  intros Q cls cls' a H HQ; induction H as [|cl cl' cls cls' [H1 [H2 H3]] H IH]; simpl; intros Hb x Hx; [tauto|].
  apply in_app_or in Hx. destruct Hx as [Hx|Hx].
  - apply Hb. rewrite H2 in Hx. apply in_or_app; auto.
  - apply in_app_or in Hx. destruct Hx as [Hx|Hx].
    + eapply HQ; eauto.
    + apply IH; auto. intros y Hy. apply Hb. apply in_or_app; right. apply in_or_app; auto.
Qed.

(* the continuation `next` of a statement that binds vb, in the context `filter_by_set c F ++ [vb]` *)
Lemma snoc_ok : forall S c s m F vb next pre,
  inv c s m -> binders s = idn (bvar vb) :: pre ++ binders next ->
  ax_check S (vb :: c) next = true ->
  (forall x, In x (fv next) -> In x F \/ x = idn (bvar vb)) ->
  let nc := filter_by_set c F in
  ax_check S (nc ++ [vb]) next = true /\ (forall m', m <= m' -> inv (nc ++ [vb]) next m') /\
  NoDup (ids (nc ++ [vb])) /\ NoDup (ids nc) /\ ~ In (idn (bvar vb)) (ids c).
Proof.
  intros S c s m F vb next pre Hinv Hb Hax HF nc.
  assert (I1 : NoDup (ids c)) by apply Hinv.
  assert (Iv : ~ In (idn (bvar vb)) (ids c)).
  { destruct Hinv as [_ [_ [I3 _]]]. intros Hin. apply (I3 _ Hin). rewrite Hb. simpl; auto. }
  assert (Hnc : NoDup (ids nc)) by (apply fbs_NoDup; auto).
  assert (Hnd' : NoDup (ids (nc ++ [vb]))).
  { rewrite ids_app. apply NoDup_snoc; auto. intros Hin. apply Iv. eapply fbs_ids_incl; eauto. }
  split; [|split; [|split; [|split]]]; auto.
  - rewrite <- Hax. symmetry. apply ax_check_ext. intros x Hx. apply lookup_snoc_fbs; auto.
  - intros m' Hm'.
    apply inv_gen with (c := c) (s := s) (m := m) (pre := idn (bvar vb) :: pre) (post := []);
      [exact Hinv|lia|auto|rewrite Hb; simpl; rewrite app_nil_r; auto|].
    intros x Hx. rewrite ids_app in Hx. apply in_app_or in Hx. destruct Hx as [Hx|[<-|[]]].
    + left. eapply fbs_ids_incl; eauto.
    + right. left. simpl; auto.
Qed.

(* what the clauses of a switch / create and the renamed continuation of a create are checked in;
   the cases below and the simulation (Proof/LinSim.v) both start from these *)
Lemma switch_clause_ok : forall S c v t cls m cl m0,
  inv c (Switch v t cls) m -> ax_clauses S c cls = true -> In cl cls -> m <= m0 ->
  ax_check S (filter_by_set c (fv_clauses cls) ++ cl_ctx cl) (cl_body cl) = true /\
  inv (filter_by_set c (fv_clauses cls) ++ cl_ctx cl) (cl_body cl) m0 /\
  (forall y, In y (ids (cl_ctx cl)) -> ~ In y (ids c)).
Proof.
  intros S c v t cls m cl m0 Hinv Hcl Hin Hm0.
  assert (I1 : NoDup (ids c)) by apply Hinv.
  assert (I2 : NoDup (binders_cls cls)) by (rewrite <- (binders_switch v t); apply Hinv).
  assert (I3 : forall x, In x (ids c) -> ~ In x (binders_cls cls)).
  { rewrite <- (binders_switch v t). apply Hinv. }
  unfold ax_clauses in Hcl. rewrite forallb_forall in Hcl.
  set (nc := filter_by_set c (fv_clauses cls)).
  assert (Hnc : NoDup (ids nc)) by (apply fbs_NoDup; auto).
  assert (Hd : forall y, In y (ids (cl_ctx cl)) -> ~ In y (ids c)).
  { intros y Hy Hc. apply (I3 _ Hc). eapply binders_cls_In; eauto. apply in_or_app; auto. }
  split; [|split; auto].
  - rewrite <- (Hcl cl Hin). symmetry. apply ax_check_ext. intros x Hx.
    apply lookup_clause_sw; auto.
    destruct (in_dec N.eq_dec x (ids (cl_ctx cl))); auto.
    right. apply fv_clauses_In. exists cl; auto.
  - destruct (binders_cls_split cls cl Hin) as [pre [post0 E]].
    apply inv_gen with (c := c) (s := Switch v t cls) (m := m)
                       (pre := pre ++ ids (cl_ctx cl)) (post := post0); [exact Hinv|lia| | |].
    + rewrite ids_app. apply NoDup_app_iff. repeat split; auto.
      * eapply binders_cls_ctx_NoDup; eauto.
      * intros x Hx Hx'. apply (Hd x Hx'). eapply fbs_ids_incl; eauto.
    + rewrite binders_switch, E. rewrite <- !app_assoc. auto.
    + intros x Hx. rewrite ids_app in Hx. apply in_app_or in Hx. destruct Hx as [Hx|Hx].
      * left. eapply fbs_ids_incl; eauto.
      * right. left. apply in_or_app; auto.
Qed.

Definition cr_env (c : ctx) (nr : stmt) (clsr : list clause) : ctx :=
  let cn := filter_by_set c (fv nr) in
  filter_by_set (skipn (length cn) c ++ firstn (length cn) c) (fv_clauses clsr).

Lemma cr_env_facts : forall c nr clsr, NoDup (ids c) ->
  let cc := cr_env c nr clsr in
  NoDup (ids cc) /\ (forall b, In b cc -> In b c) /\ (forall x, In x (ids cc) -> In x (ids c)) /\
  (forall x, In x (fv_clauses clsr) -> lookup_b c x = lookup_b cc x) /\
  (forall x, In x (ids c) -> In x (fv_clauses clsr) -> In x (ids cc)).
Proof.
  intros c nr clsr I1 cc. unfold cc, cr_env.
  set (cn := filter_by_set c (fv nr)).
  set (cr := skipn (length cn) c ++ firstn (length cn) c).
  assert (Hcr : NoDup (ids cr)) by (apply reorder_NoDup; auto).
  assert (Hin : forall b, In b (filter_by_set cr (fv_clauses clsr)) -> In b c).
  { intros b Hb. apply fbs_In in Hb. destruct Hb as [Hb _]. apply reorder_In in Hb. auto. }
  split; [apply fbs_NoDup; auto|]. split; auto. split; [|split].
  - intros x Hx. apply In_ids_ex in Hx. destruct Hx as [b [B1 B2]]. subst. apply In_ids; auto.
  - intros x Hx. rewrite <- lookup_fbs_sub by auto.
    apply lookup_b_same_set; auto. intros b. symmetry. apply reorder_In.
  - intros x Hx Hf. apply fbs_ids_In. split; auto.
    apply In_ids_ex in Hx. destruct Hx as [b [B1 B2]]. subst. apply In_ids. apply reorder_In. auto.
Qed.

Lemma create_clause_ok : forall S c v t e clsr nr m cl m0,
  inv c (Create v t e clsr nr) m -> ax_clauses S c clsr = true -> In cl clsr -> m <= m0 ->
  ax_check S (cl_ctx cl ++ cr_env c nr clsr) (cl_body cl) = true /\
  inv (cl_ctx cl ++ cr_env c nr clsr) (cl_body cl) m0.
Proof.
  intros S c v t e clsr nr m cl m0 Hinv Hcl Hin Hm0.
  pose proof Hinv as [I1 [I2 [I3 [I4 I5]]]]. rewrite binders_create in I2, I3, I5.
  assert (I2c : NoDup (binders_cls clsr)).
  { inversion I2; subst. match goal with Hx : NoDup (_ ++ _) |- _ => apply NoDup_app_iff in Hx; tauto end. }
  unfold ax_clauses in Hcl. rewrite forallb_forall in Hcl.
  destruct (cr_env_facts c nr clsr I1) as [Hcc [Hcc_in [Hcc_ids [Hcc_look _]]]].
  set (cc := cr_env c nr clsr) in *.
  assert (Hd : forall y, In y (ids (cl_ctx cl)) -> ~ In y (ids c)).
  { intros y Hy Hc. apply (I3 _ Hc). right. apply in_or_app. left.
    eapply binders_cls_In; eauto. apply in_or_app; auto. }
  split.
  - rewrite <- (Hcl cl Hin). symmetry. apply ax_check_ext. intros x Hx.
    rewrite !lookup_b_app. destruct (lookup_b (cl_ctx cl) x) eqn:E; auto.
    apply Hcc_look. apply fv_clauses_In. exists cl. repeat split; auto. apply lookup_b_None; auto.
  - destruct (binders_cls_split clsr cl Hin) as [pre [post0 E]].
    apply inv_gen with (c := c) (s := Create v t e clsr nr) (m := m)
                       (pre := idn v :: pre ++ ids (cl_ctx cl)) (post := post0 ++ binders nr);
      [exact Hinv|lia| | |].
    + rewrite ids_app. apply NoDup_app_iff. repeat split; auto.
      * eapply binders_cls_ctx_NoDup; eauto.
      * intros x Hx Hx'. apply (Hd x Hx). auto.
    + rewrite binders_create, E. simpl. rewrite <- !app_assoc. auto.
    + intros x Hx. rewrite ids_app in Hx. apply in_app_or in Hx. destruct Hx as [Hx|Hx].
      * right. left. right. apply in_or_app; auto.
      * left. auto.
Qed.

Lemma create_else_ok : forall S c v t e clsr nr m m1 cnf m2,
  inv c (Create v t e clsr nr) m -> ax_check S (mkb v Cns t :: c) nr = true -> m <= m1 ->
  freshen (filter_by_set c (fv nr)) (ids (cr_env c nr clsr)) m1 = (cnf, m2) ->
  let cn := filter_by_set c (fv nr) in
  let su := combine (ids cn) (vars cnf) in
  same_shape cn cnf /\ NoDup (ids cnf) /\ ~ In (idn v) (ids cnf) /\ m1 <= m2 /\
  ax_check S (cnf ++ [mkb v Cns t]) (sub_s su nr) = true /\
  inv (cnf ++ [mkb v Cns t]) (sub_s su nr) m2 /\
  untouched su (idn v :: binders nr) /\
  (forall x, In x (ids cnf) -> ~ In x (ids (cr_env c nr clsr))).
Proof.
  intros S c v t e clsr nr m m1 cnf m2 Hinv Hn Hm1 Ef cn su.
  pose proof Hinv as [I1 [I2 [I3 [I4 I5]]]]. rewrite binders_create in I2, I3, I5.
  assert (Iv : ~ In (idn v) (ids c)) by (intros Hin; apply (I3 _ Hin); simpl; auto).
  assert (Ivm : idn v <= m) by (apply I5; simpl; auto).
  destruct (cr_env_facts c nr clsr I1) as [Hcc [Hcc_in [Hcc_ids _]]].
  set (cc := cr_env c nr clsr) in *. set (vb := mkb v Cns t).
  assert (Hcn : NoDup (ids cn)) by (apply fbs_NoDup; auto).
  assert (Hb1 : forall x, In x (ids cc) -> x <= m1).
  { intros x Hx. apply Hcc_ids in Hx. apply I4 in Hx. lia. }
  assert (Hb2 : forall x, In x (ids cn) -> x <= m1).
  { intros x Hx. apply fbs_ids_incl in Hx. apply I4 in Hx. lia. }
  destruct (freshen_spec _ _ _ _ _ Ef Hb1 Hb2) as [F1 [F2 [F3 [F4 F5]]]].
  assert (Hcnf_src : forall x, In x (ids cnf) -> In x (ids c) \/ (m1 < x /\ x <= m2)).
  { intros x Hx. destruct (F5 x Hx) as [H|H]; auto. left. eapply fbs_ids_incl; eauto. }
  assert (Hv_cnf : ~ In (idn v) (ids cnf)).
  { intros Hin. destruct (Hcnf_src _ Hin) as [H|H]; [tauto|]. lia. }
  assert (Hns : has_subst nr = false) by (eapply ax_check_no_subst; eauto).
  assert (Hnd' : NoDup (ids (cnf ++ [vb]))).
  { rewrite ids_app. apply NoDup_snoc; auto. }
  assert (Hun : untouched su (idn v :: binders nr)).
  { intros x Hx. unfold su. rewrite su_fst, su_snd by auto.
    assert (Hxb : In x (idn v :: binders_cls clsr ++ binders nr)).
    { destruct Hx as [<-|Hx]; [simpl; auto|]. right. apply in_or_app; auto. }
    split.
    - intros Hin. apply fbs_ids_incl in Hin. apply (I3 _ Hin); auto.
    - intros Hin. destruct (Hcnf_src _ Hin) as [H|H].
      + apply (I3 _ H); auto.
      + apply I5 in Hxb. lia. }
  split; auto. split; auto. split; auto. split; auto. split; [|split; [|split; auto]].
  - apply ax_check_rename with (c := vb :: c); auto.
    + intros x Hx. apply Hun. simpl; auto.
    + intros n b Hn' Hl. rewrite lookup_b_cons in Hl. simpl in Hl.
      destruct (N.eqb (idn v) n) eqn:En.
      * apply N.eqb_eq in En. subst n. inversion Hl; subst b.
        rewrite sub_n_notin.
        2:{ unfold su. rewrite su_fst by auto. intros Hin. apply Iv. eapply fbs_ids_incl; eauto. }
        exists vb. rewrite lookup_b_app.
        assert (Hnone : lookup_b cnf (idn v) = None) by (apply lookup_b_None; auto).
        rewrite Hnone. simpl. rewrite N.eqb_refl. auto.
      * apply lookup_b_Some in Hl. destruct Hl as [L1 L2]. subst n.
        assert (Hbcn : In b cn) by (apply fbs_In; auto).
        destruct (ren_lookup cn cnf F2 Hcn b Hbcn) as [b' [B1 [B2 [B3 B4]]]].
        exists b'. fold su in B2. rewrite B2. split; auto.
        rewrite lookup_b_app. rewrite (lookup_b_In cnf b' F3 B1). auto.
  - apply inv_gen with (c := c) (s := Create v t e clsr nr) (m := m)
                       (pre := idn v :: binders_cls clsr) (post := []); [exact Hinv|lia|auto| |].
    + rewrite binders_create, binders_sub by auto. simpl. rewrite app_nil_r. auto.
    + intros x Hx. rewrite ids_app in Hx. apply in_app_or in Hx. destruct Hx as [Hx|[<-|[]]].
      * destruct (Hcnf_src _ Hx) as [H|H]; auto. right. right. right. lia.
      * right. left. simpl; auto.
Qed.

(* [post]: what is shown of one call of `lin` on s in context c with counter m; r is the pair (statement,
   max_id) it returns.  [good S f], further down, is the induction hypothesis on the fuel: with fuel f,
   `lin` establishes [post] for every typed statement of size <= f that satisfies [inv] (a predicate on
   fuel, not the predicate [good] on observations of Proof/LinMachine.v). *)
Definition post (S : sigs) (c : ctx) (s : stmt) (m : N) (r : stmt * N) : Prop :=
  lin_check S c (fst r) = true /\ m <= snd r /\
  binders_ns (fst r) = binders s /\ (forall x, In x (binders (fst r)) -> x <= snd r).

Lemma post_wrap : forall S c s m (newc oldc : ctx) body m',
  lin_check S c (Substitute (combine newc (vars oldc)) body) = true -> m <= m' ->
  length newc = length oldc -> binders_ns body = binders s ->
  (forall x, In x (ids newc) -> x <= m') -> (forall x, In x (binders body) -> x <= m') ->
  post S c s m (Substitute (combine newc (vars oldc)) body, m').
Proof.
  intros S c s m newc oldc body m' H1 H2 H3 H4 H5 H6. unfold post. cbn [fst snd].
  split; auto. split; auto. split; auto.
  rewrite binders_subst by (rewrite vars_length; auto).
  intros x Hx. apply in_app_or in Hx. destruct Hx; auto.
Qed.

(* the statement forms that keep the variables in F: the core is checked in `filter_by_set c F`, and
   `lin` puts a substitution in front of it unless that is the whole context *)
Lemma post_self : forall S c s m F core m1,
  NoDup (ids c) -> (forall x, In x (ids c) -> x <= m) -> m <= m1 ->
  lin_check S (filter_by_set c F) core = true ->
  binders_ns core = binders s -> (forall x, In x (binders core) -> x <= m1) ->
  post S c s m (if ctx_eqb c (filter_by_set c F) then (core, m1)
                else (Substitute (self_re (filter_by_set c F)) core, m1)).
Proof.
  intros S c s m F core m1 I1 I4 Hm Hlc Hbn Hbd. set (nc := filter_by_set c F) in *.
  destruct (ctx_eqb c nc) eqn:Eq.
  - apply ctx_eqb_eq in Eq. rewrite <- Eq in Hlc. unfold post. cbn [fst snd]. auto.
  - unfold self_re. apply post_wrap; auto.
    + apply self_subst_ok; auto; [apply fbs_NoDup; auto|]. intros b Hb. apply fbs_In in Hb. tauto.
    + intros x Hx. apply fbs_ids_incl in Hx. apply I4 in Hx. lia.
Qed.

Definition good (S : sigs) (f : nat) : Prop :=
  forall s c m, (stmt_size s <= f)%nat -> ax_check S c s = true -> inv c s m ->
    post S c s m (lin f s c m).

Section Cases.
  Variable S : sigs.
  Variable f : nat.
  Hypothesis IH : good S f.
  Notation Sf := (Datatypes.S f).

  Lemma case_exit : forall v c m,
    ax_check S c (Exit v) = true -> inv c (Exit v) m -> post S c (Exit v) m (lin Sf (Exit v) c m).
  Proof.
    intros v c m Hax [I1 _]. rewrite lin_exit. unfold post. simpl in *.
    split; [fin|]. split; [lia|]. split; auto. tauto.
  Qed.

  Lemma case_ifc : forall so a b t e c m,
    (stmt_size (IfC so a b t e) <= Sf)%nat ->
    ax_check S c (IfC so a b t e) = true -> inv c (IfC so a b t e) m ->
    post S c (IfC so a b t e) m (lin Sf (IfC so a b t e) c m).
  Proof.
    intros so a b t e c m Hsz Hax Hinv. rewrite lin_ifc. simpl in Hsz, Hax.
    assert (I1 : NoDup (ids c)) by apply Hinv.
    apply andb_true_iff in Hax. destruct Hax as [Hax Hae].
    apply andb_true_iff in Hax. destruct Hax as [Hax Hat].
    apply andb_true_iff in Hax. destruct Hax as [Ha Hb].
    destruct (IH t c m) as [T1 [T2 [T3 T4]]]; [lia|auto|exact (proj1 (inv_ifc _ _ _ _ _ _ _ _ Hinv (N.le_refl m)))|].
    destruct (lin f t c m) as [t' m1] eqn:Et. cbn [fst snd] in *.
    destruct (IH e c m1) as [E1 [E2 [E3 E4]]]; [lia|auto|exact (proj2 (inv_ifc _ _ _ _ _ _ _ _ Hinv T2))|].
    destruct (lin f e c m1) as [e' m2] eqn:Ee. cbn [fst snd] in *.
    unfold post. cbn [fst snd]. split; [simpl; fin|]. split; [lia|]. split.
    - simpl. rewrite T3, E3. auto.
    - simpl. intros x Hx. apply in_app_or in Hx. destruct Hx as [Hx|Hx]; auto.
      apply T4 in Hx. lia.
  Qed.

  Lemma case_print : forall nl v next c m,
    (stmt_size (PrintI64 nl v next) <= Sf)%nat ->
    ax_check S c (PrintI64 nl v next) = true -> inv c (PrintI64 nl v next) m ->
    post S c (PrintI64 nl v next) m (lin Sf (PrintI64 nl v next) c m).
  Proof.
    intros nl v next c m Hsz Hax Hinv. rewrite lin_print. cbv zeta. simpl in Hsz, Hax.
    assert (I1 : NoDup (ids c)) by apply Hinv.
    assert (I4 : forall x, In x (ids c) -> x <= m) by apply Hinv.
    apply andb_true_iff in Hax. destruct Hax as [Hv Hax].
    set (F := add (idn v) (fv next)). set (nc := filter_by_set c F).
    assert (Hnc : NoDup (ids nc)) by (apply fbs_NoDup; auto).
    assert (Hax' : ax_check S nc next = true).
    { rewrite <- Hax. symmetry. apply ax_check_ext. intros x Hx.
      apply lookup_fbs_sub; auto. apply add_In; auto. }
    destruct (IH next nc m) as [N1 [N2 [N3 N4]]]; [lia|auto| |].
    { apply inv_gen with (c := c) (s := PrintI64 nl v next) (m := m) (pre := []) (post := []);
        [exact Hinv|lia|auto|simpl; rewrite app_nil_r; auto|].
      intros x Hx. left. eapply fbs_ids_incl; eauto. }
    destruct (lin f next nc m) as [n' m1] eqn:En. cbn [fst snd] in *.
    assert (Hv' : has_ext nc v = true).
    { unfold has_ext in *. rewrite <- Hv. apply has_ext_lookup. symmetry. apply lookup_fbs_sub; auto.
      apply add_In; auto. }
    apply post_self; [exact I1|exact I4|lia|simpl; fin|simpl; auto|simpl; auto].
  Qed.

  Lemma case_literal : forall n v next c m,
    (stmt_size (Literal n v next) <= Sf)%nat ->
    ax_check S c (Literal n v next) = true -> inv c (Literal n v next) m ->
    post S c (Literal n v next) m (lin Sf (Literal n v next) c m).
  Proof.
    intros n v next c m Hsz Hax Hinv. rewrite lin_literal. cbv zeta. simpl in Hsz, Hax.
    assert (I1 : NoDup (ids c)) by apply Hinv.
    assert (I4 : forall x, In x (ids c) -> x <= m) by apply Hinv.
    assert (I5 : idn v <= m) by (apply Hinv; simpl; auto).
    set (F := fv next). set (vb := mkb v Ext I64).
    destruct (snoc_ok S c (Literal n v next) m F vb next [] Hinv) as [Hax' [Hinv' [Hnd' [Hnc Iv]]]]; auto.
    set (nc := filter_by_set c F) in *.
    destruct (IH next (nc ++ [vb]) m) as [N1 [N2 [N3 N4]]]; [lia|auto|apply Hinv'; lia|].
    destruct (lin f next (nc ++ [vb]) m) as [n' m1] eqn:En. cbn [fst snd] in *.
    assert (Hbn : binders_ns (Literal n v n') = binders (Literal n v next)) by (simpl; rewrite N3; auto).
    assert (Hbd : forall x, In x (binders (Literal n v n')) -> x <= m1).
    { simpl. intros x [<-|Hx]; auto. lia. }
    apply post_self; [exact I1|exact I4|lia|simpl; fin|exact Hbn|exact Hbd].
  Qed.

  Lemma case_op : forall a o b v next c m,
    (stmt_size (Op a o b v next) <= Sf)%nat ->
    ax_check S c (Op a o b v next) = true -> inv c (Op a o b v next) m ->
    post S c (Op a o b v next) m (lin Sf (Op a o b v next) c m).
  Proof.
    intros a o b v next c m Hsz Hax Hinv. rewrite lin_op. cbv zeta. simpl in Hsz, Hax.
    assert (I1 : NoDup (ids c)) by apply Hinv.
    assert (I4 : forall x, In x (ids c) -> x <= m) by apply Hinv.
    assert (I5 : idn v <= m) by (apply Hinv; simpl; auto).
    apply andb_true_iff in Hax. destruct Hax as [Hax Hn].
    apply andb_true_iff in Hax. destruct Hax as [Ha Hb].
    set (F := add (idn b) (add (idn a) (fv next))). set (vb := mkb v Ext I64).
    destruct (snoc_ok S c (Op a o b v next) m F vb next [] Hinv) as [Hax' [Hinv' [Hnd' [Hnc Iv]]]]; auto.
    { intros x Hx. left. apply add_In. right. apply add_In. auto. }
    set (nc := filter_by_set c F) in *.
    destruct (IH next (nc ++ [vb]) m) as [N1 [N2 [N3 N4]]]; [lia|auto|apply Hinv'; lia|].
    destruct (lin f next (nc ++ [vb]) m) as [n' m1] eqn:En. cbn [fst snd] in *.
    assert (Ha' : has_ext nc a = true).
    { unfold has_ext in *. rewrite <- Ha. apply has_ext_lookup. symmetry. apply lookup_fbs_sub; auto.
      apply add_In. right. apply add_In. auto. }
    assert (Hb' : has_ext nc b = true).
    { unfold has_ext in *. rewrite <- Hb. apply has_ext_lookup. symmetry. apply lookup_fbs_sub; auto.
      apply add_In. auto. }
    assert (Hbn : binders_ns (Op a o b v n') = binders (Op a o b v next)) by (simpl; rewrite N3; auto).
    assert (Hbd : forall x, In x (binders (Op a o b v n')) -> x <= m1).
    { simpl. intros x [<-|Hx]; auto. lia. }
    apply post_self; [exact I1|exact I4|lia|simpl; fin|exact Hbn|exact Hbd].
  Qed.

  Lemma case_call : forall l args c m,
    ax_check S c (Call l args) = true -> inv c (Call l args) m ->
    post S c (Call l args) m (lin Sf (Call l args) c m).
  Proof.
    intros l args c m Hax Hinv. rewrite lin_call. simpl in Hax.
    destruct Hinv as [I1 [I2 [I3 [I4 I5]]]].
    destruct (lookup_label S l) as [ps|] eqn:El; try discriminate.
    apply andb_true_iff in Hax. destruct Hax as [Hsig Hargs].
    rewrite forallb_forall in Hargs.
    destruct (ctx_eqb c args) eqn:Eq.
    - apply ctx_eqb_eq in Eq. subst. unfold post. cbn [fst snd].
      split; [simpl; rewrite El; fin|]. split; [lia|]. split; [auto|simpl; tauto].
    - destruct (freshen args [] m) as [fr m1] eqn:Ef.
      assert (Hb1 : forall x, In x (@nil N) -> x <= m) by (intros x []).
      assert (Hb2 : forall x, In x (ids args) -> x <= m).
      { intros x Hx. apply In_ids_ex in Hx. destruct Hx as [b [B1 B2]].
        apply Hargs in B1. apply has_b_In_ids in B1. rewrite B2 in B1. auto. }
      destruct (freshen_spec _ _ _ _ _ Ef Hb1 Hb2) as [F1 [F2 [F3 [F4 F5]]]].
      assert (Hkt : same_kt fr args) by (apply same_kt_sym, same_shape_kt; auto).
      apply post_wrap; auto.
      + apply subst_ok; auto. simpl. rewrite El. fin. eapply sig_match_same_kt; eauto.
      + symmetry. apply same_shape_length; auto.
      + eapply freshen_bound; eauto.
      + simpl; tauto.
  Qed.

  Lemma case_invoke : forall v tag t args c m,
    ax_check S c (Invoke v tag t args) = true -> inv c (Invoke v tag t args) m ->
    post S c (Invoke v tag t args) m (lin Sf (Invoke v tag t args) c m).
  Proof.
    intros v tag t args c m Hax Hinv. rewrite lin_invoke. simpl in Hax.
    destruct Hinv as [I1 [I2 [I3 [I4 I5]]]].
    apply andb_true_iff in Hax. destruct Hax as [Hax Hargs].
    apply andb_true_iff in Hax. destruct Hax as [Hv Hok].
    rewrite forallb_forall in Hargs.
    assert (Hvm : idn v <= m) by (apply I4; eapply has_In_ids; eauto).
    set (cb := mkb v Cns t).
    destruct (ctx_eqb c (args ++ [cb])) eqn:Eq.
    - apply ctx_eqb_eq in Eq. unfold post. cbn [fst snd].
      split; [|split; [lia|split; [auto|simpl; tauto]]].
      rewrite Eq. apply lin_check_invoke_intro; auto. rewrite <- Eq; auto.
    - destruct (freshen args [idn v] m) as [fr m1] eqn:Ef.
      assert (Hb1 : forall x, In x [idn v] -> x <= m) by (intros x [<-|[]]; auto).
      assert (Hb2 : forall x, In x (ids args) -> x <= m).
      { intros x Hx. apply In_ids_ex in Hx. destruct Hx as [b [B1 B2]].
        apply Hargs in B1. apply has_b_In_ids in B1. rewrite B2 in B1. auto. }
      destruct (freshen_spec _ _ _ _ _ Ef Hb1 Hb2) as [F1 [F2 [F3 [F4 F5]]]].
      assert (Hkt : same_kt fr args) by (apply same_kt_sym, same_shape_kt; auto).
      apply post_wrap; auto.
      + apply subst_ok; auto.
        * apply same_kt_app; auto. apply same_kt_refl.
        * intros b Hb. apply in_app_or in Hb. destruct Hb as [Hb|[<-|[]]]; auto.
        * apply lin_check_invoke_intro; auto.
          -- rewrite ids_app. apply NoDup_snoc; auto. intros Hin. apply (F4 _ Hin). simpl; auto.
          -- eapply args_ok_same_kt; eauto.
      + rewrite !app_length. simpl. f_equal. symmetry. apply same_shape_length; auto.
      + intros x Hx. rewrite ids_app in Hx. apply in_app_or in Hx. destruct Hx as [Hx|[<-|[]]].
        * eapply freshen_bound; eauto.
        * simpl. lia.
      + simpl; tauto.
  Qed.

  Lemma case_let : forall v t tag args next c m,
    (stmt_size (Let v t tag args next) <= Sf)%nat ->
    ax_check S c (Let v t tag args next) = true -> inv c (Let v t tag args next) m ->
    post S c (Let v t tag args next) m (lin Sf (Let v t tag args next) c m).
  Proof.
    intros v t tag args next c m Hsz Hax Hinv. rewrite lin_let. cbv zeta. simpl in Hsz, Hax.
    assert (I1 : NoDup (ids c)) by apply Hinv.
    assert (I4 : forall x, In x (ids c) -> x <= m) by apply Hinv.
    assert (I5 : idn v <= m) by (apply Hinv; simpl; auto).
    apply andb_true_iff in Hax. destruct Hax as [Hax Hn].
    apply andb_true_iff in Hax. destruct Hax as [Hok Hargs].
    rewrite forallb_forall in Hargs.
    set (vb := mkb v Prd t).
    destruct (snoc_ok S c (Let v t tag args next) m (fv next) vb next [] Hinv) as [Hax' [Hinv' [Hnd' [Hnc Iv]]]]; auto.
    set (nc := filter_by_set c (fv next)) in *.
    destruct (ctx_eqb c (nc ++ args)) eqn:Eq.
    - destruct (IH next (nc ++ [vb]) m) as [N1 [N2 [N3 N4]]]; [lia|auto|apply Hinv'; lia|].
      destruct (lin f next (nc ++ [vb]) m) as [n' m1] eqn:En. cbn [fst snd] in *.
      unfold post. cbn [fst snd]. split; [|split; [lia|split]].
      + apply ctx_eqb_eq in Eq. rewrite Eq at 1.
        apply lin_check_let_intro; auto.
        * rewrite <- Eq; auto.
        * apply ctx_match_refl.
      + simpl. rewrite N3. auto.
      + simpl. intros x [<-|Hx]; auto. lia.
    - destruct (freshen args (ids nc) m) as [args' m1] eqn:Ef.
      assert (Hb1 : forall x, In x (ids nc) -> x <= m).
      { intros x Hx. apply I4. eapply fbs_ids_incl; eauto. }
      assert (Hb2 : forall x, In x (ids args) -> x <= m).
      { intros x Hx. apply In_ids_ex in Hx. destruct Hx as [b [B1 B2]].
        apply Hargs in B1. apply has_b_In_ids in B1. rewrite B2 in B1. auto. }
      destruct (freshen_spec _ _ _ _ _ Ef Hb1 Hb2) as [F1 [F2 [F3 [F4 F5]]]].
      assert (Hkt : same_kt args' args) by (apply same_kt_sym, same_shape_kt; auto).
      destruct (IH next (nc ++ [vb]) m1) as [N1 [N2 [N3 N4]]]; [lia|auto|apply Hinv'; lia|].
      destruct (lin f next (nc ++ [vb]) m1) as [n' m2] eqn:En. cbn [fst snd] in *.
      apply post_wrap; auto.
      + apply subst_ok; auto.
        * apply same_kt_app; auto. apply same_kt_refl.
        * intros b Hb. apply in_app_or in Hb. destruct Hb as [Hb|Hb]; auto.
          apply has_b_In; auto. apply fbs_In in Hb. tauto.
        * apply lin_check_let_intro; auto.
          -- rewrite ids_app. apply NoDup_app_iff. repeat split; auto.
             intros x Hx Hx'. apply (F4 _ Hx'). auto.
          -- apply ctx_match_refl.
          -- eapply args_ok_same_kt; eauto.
      + lia.
      + rewrite !app_length. f_equal. symmetry. apply same_shape_length; auto.
      + simpl. rewrite N3. auto.
      + intros x Hx. rewrite ids_app in Hx. apply in_app_or in Hx. destruct Hx as [Hx|Hx].
        * apply Hb1 in Hx. lia.
        * assert (x <= m1) by (eapply freshen_bound; eauto). lia.
      + simpl. intros x [<-|Hx]; auto. lia.
  Qed.

  Lemma case_switch : forall v t cls c m,
    (stmt_size (Switch v t cls) <= Sf)%nat ->
    ax_check S c (Switch v t cls) = true -> inv c (Switch v t cls) m ->
    post S c (Switch v t cls) m (lin Sf (Switch v t cls) c m).
  Proof.
    intros v t cls c m Hsz Hax Hinv. rewrite lin_switch. cbv zeta.
    rewrite size_switch in Hsz. rewrite ax_check_switch in Hax.
    assert (I1 : NoDup (ids c)) by apply Hinv.
    assert (I4 : forall x, In x (ids c) -> x <= m) by apply Hinv.
    assert (I5 : forall x, In x (binders_cls cls) -> x <= m).
    { rewrite <- (binders_switch v t). apply Hinv. }
    apply andb_true_iff in Hax. destruct Hax as [Hax Hcl].
    apply andb_true_iff in Hax. destruct Hax as [Hv Hok].
    pose proof Hcl as Hcls. unfold ax_clauses in Hcl. rewrite forallb_forall in Hcl.
    assert (Hvm : idn v <= m) by (apply I4; eapply has_In_ids; eauto).
    set (nc := filter_by_set c (fv_clauses cls)). set (vb := mkb v Prd t).
    assert (Hnc : NoDup (ids nc)) by (apply fbs_NoDup; auto).
    assert (Hncm : forall x, In x (ids nc) -> x <= m).
    { intros x Hx. apply I4. eapply fbs_ids_incl; eauto. }
    set (Q := fun (cl : clause) (b' : stmt) (a : N) =>
                lin_check S (nc ++ cl_ctx cl) b' = true /\ binders_ns b' = binders (cl_body cl) /\
                (forall x, In x (binders b') -> x <= a)).
    destruct (lin_cls_spec (lin f) (fun cc => nc ++ cc) Q cls m) as [H1 H2].
    { intros cl b a a' [Q1 [Q2 Q3]] Ha. repeat split; auto. intros x Hx. apply Q3 in Hx. lia. }
    { intros cl m0 Hin Hm0.
      destruct (switch_clause_ok S c v t cls m cl m0 Hinv Hcls Hin Hm0) as [K1 [K2 _]].
      destruct (IH (cl_body cl) (nc ++ cl_ctx cl) m0) as [P1 [P2 [P3 P4]]];
        [apply size_cls_In in Hin; lia|exact K1|exact K2|].
      unfold Q. auto. }
    destruct (lin_cls (lin f) (fun cc => nc ++ cc) cls m) as [cls' m1] eqn:Ec. cbn [fst snd] in *.
    set (Q' := fun cl b' => Q cl b' m1) in *.
    assert (Hok' : cls_ok S t cls' = true) by (rewrite (cls_ok_F2 S t Q' cls cls' H2); auto).
    assert (Hcl' : lin_clauses_sw S nc cls' = true).
    { unfold lin_clauses_sw. apply (forallb_F2 _ Q' cls cls' H2).
      intros cl cl' E [Q1 _]. rewrite E. auto. }
    assert (Hbn : forall v', binders_ns (Switch v' t cls') = binders (Switch v t cls)).
    { intros v'. rewrite binders_ns_switch, binders_switch. apply (bns_cls_F2 Q' cls cls' H2).
      intros cl b [_ [Q2 _]]; auto. }
    assert (Hbd : forall v' x, In x (binders (Switch v' t cls')) -> x <= m1).
    { intros v'. rewrite binders_switch. apply (bound_cls_F2 Q' cls cls' m1 H2).
      - intros cl b [_ [_ Q3]]; auto.
      - intros x Hx. apply I5 in Hx. lia. }
    destruct (ctx_eqb c (nc ++ [vb])) eqn:Eq.
    - unfold post. cbn [fst snd]. split; [|split; [lia|split; [apply Hbn|apply Hbd]]].
      apply ctx_eqb_eq in Eq. rewrite Eq at 1.
      apply lin_check_switch_intro; auto. rewrite <- Eq; auto.
    - assert (Hsrc : forall b, In b (nc ++ [vb]) -> has_b c b = true).
      { intros b Hb. apply in_app_or in Hb. destruct Hb as [Hb|[<-|[]]]; auto.
        apply has_b_In; auto. apply fbs_In in Hb. tauto. }
      destruct (mem (idn v) (ids nc)) eqn:M.
      + apply post_wrap; [ |lia|rewrite !app_length; auto|apply Hbn| |].
        * apply subst_ok; auto.
          -- apply same_kt_app; [apply same_kt_refl|]. constructor; [simpl; auto|constructor].
          -- apply lin_check_switch_intro; auto.
             rewrite ids_app. apply NoDup_snoc; auto. simpl. intros Hin.
             apply Hncm in Hin. lia.
        * intros x Hx. rewrite ids_app in Hx. apply in_app_or in Hx. destruct Hx as [Hx|[<-|[]]].
          -- apply Hncm in Hx. lia.
          -- simpl. lia.
        * intros x Hx. apply Hbd in Hx. lia.
      + apply mem_false in M. apply post_wrap; [ |lia|rewrite !app_length; auto|apply Hbn| |apply Hbd].
        * apply subst_ok; auto.
          -- apply same_kt_app; [apply same_kt_refl|]. constructor; [simpl; auto|constructor].
          -- apply lin_check_switch_intro; auto.
             rewrite ids_app. apply NoDup_snoc; auto.
        * intros x Hx. rewrite ids_app in Hx. apply in_app_or in Hx. destruct Hx as [Hx|[<-|[]]].
          -- apply Hncm in Hx. lia.
          -- simpl. lia.
  Qed.

  Lemma case_create : forall v t e cls next c m,
    (stmt_size (Create v t e cls next) <= Sf)%nat ->
    ax_check S c (Create v t e cls next) = true -> inv c (Create v t e cls next) m ->
    post S c (Create v t e cls next) m (lin Sf (Create v t e cls next) c m).
  Proof.
    intros v t e cls next c m Hsz Hax Hinv. rewrite lin_create. cbv zeta.
    rewrite size_create in Hsz. rewrite ax_check_create in Hax.
    pose proof Hinv as [I1 [I2 [I3 [I4 I5]]]]. rewrite binders_create in I2, I3, I5.
    assert (Iv : ~ In (idn v) (ids c)) by (intros Hin; apply (I3 _ Hin); simpl; auto).
    assert (Ivm : idn v <= m) by (apply I5; simpl; auto).
    assert (I5c : forall x, In x (binders_cls cls) -> x <= m).
    { intros x Hx. apply I5. right. apply in_or_app; auto. }
    apply andb_true_iff in Hax. destruct Hax as [Hax Hn].
    apply andb_true_iff in Hax. destruct Hax as [Hok Hcl].
    pose proof Hcl as Hcls. unfold ax_clauses in Hcl. rewrite forallb_forall in Hcl.
    set (cn := filter_by_set c (fv next)). set (cc := cr_env c next cls). set (vb := mkb v Cns t).
    change (filter_by_set (skipn (length cn) c ++ firstn (length cn) c) (fv_clauses cls)) with cc.
    assert (Hcn : NoDup (ids cn)) by (apply fbs_NoDup; auto).
    assert (Hcn_in : forall b, In b cn -> In b c) by (intros b Hb; apply fbs_In in Hb; tauto).
    destruct (cr_env_facts c next cls I1) as [Hcc [Hcc_in [Hcc_ids _]]]. fold cc in Hcc, Hcc_in, Hcc_ids.
    (* the clauses *)
    set (Q := fun (cl : clause) (b' : stmt) (a : N) =>
                lin_check S (cl_ctx cl ++ cc) b' = true /\ binders_ns b' = binders (cl_body cl) /\
                (forall x, In x (binders b') -> x <= a)).
    destruct (lin_cls_spec (lin f) (fun x => x ++ cc) Q cls m) as [H1 H2].
    { intros cl b a a' [Q1 [Q2 Q3]] Ha. repeat split; auto. intros x Hx. apply Q3 in Hx. lia. }
    { intros cl m0 Hin Hm0.
      destruct (create_clause_ok S c v t e cls next m cl m0 Hinv Hcls Hin Hm0) as [K1 K2].
      destruct (IH (cl_body cl) (cl_ctx cl ++ cc) m0) as [P1 [P2 [P3 P4]]];
        [apply size_cls_In in Hin; lia|exact K1|exact K2|].
      unfold Q. auto. }
    destruct (lin_cls (lin f) (fun x => x ++ cc) cls m) as [cls' m1] eqn:Ec. cbn [fst snd] in *.
    set (Q' := fun cl b' => Q cl b' m1) in *.
    assert (Hok' : cls_ok S t cls' = true) by (rewrite (cls_ok_F2 S t Q' cls cls' H2); auto).
    assert (Hcl' : lin_clauses_cr S cc cls' = true).
    { unfold lin_clauses_cr. apply (forallb_F2 _ Q' cls cls' H2).
      intros cl cl' E [Q1 _]. rewrite E. auto. }
    assert (Hbnc : binders_ns_cls cls' = binders_cls cls).
    { apply (bns_cls_F2 Q' cls cls' H2). intros cl b [_ [Q2 _]]; auto. }
    assert (Hbdc : forall x, In x (binders_cls cls') -> x <= m1).
    { apply (bound_cls_F2 Q' cls cls' m1 H2).
      - intros cl b [_ [_ Q3]]; auto.
      - intros x Hx. apply I5c in Hx. lia. }
    destruct (ctx_eqb c (cn ++ cc)) eqn:Eq.
    - (* the context is already right *)
      destruct (snoc_ok S c (Create v t e cls next) m (fv next) vb next (binders_cls cls) Hinv)
        as [Hax' [Hinv' [Hnd' _]]]; auto using binders_create.
      fold cn in Hax', Hinv', Hnd'.
      destruct (IH next (cn ++ [vb]) m1) as [N1 [N2 [N3 N4]]]; [lia|auto|apply Hinv'; lia|].
      destruct (lin f next (cn ++ [vb]) m1) as [n' m2] eqn:En. cbn [fst snd] in *.
      unfold post. cbn [fst snd]. split; [|split; [lia|split]].
      + apply ctx_eqb_eq in Eq. rewrite Eq at 1.
        apply lin_check_create_intro; auto. rewrite <- Eq; auto.
      + rewrite binders_ns_create, binders_create, Hbnc, N3. auto.
      + rewrite binders_create. intros x [<-|Hx]; [lia|].
        apply in_app_or in Hx. destruct Hx as [Hx|Hx]; auto. apply Hbdc in Hx. lia.
    - (* rearrangement, renaming of next *)
      destruct (freshen cn (ids cc) m1) as [cnf m2] eqn:Ef.
      destruct (create_else_ok S c v t e cls next m m1 cnf m2 Hinv Hn H1 Ef)
        as [F2 [F3 [Hv_cnf [F1 [Hax' [Hinv' [_ F4]]]]]]].
      fold cn in F2, Hax', Hinv'. set (su := combine (ids cn) (vars cnf)) in *.
      assert (Hb1 : forall x, In x (ids cc) -> x <= m1).
      { intros x Hx. apply Hcc_ids in Hx. apply I4 in Hx. lia. }
      assert (Hb2 : forall x, In x (ids cn) -> x <= m1).
      { intros x Hx. apply fbs_ids_incl in Hx. apply I4 in Hx. lia. }
      assert (Hkt : same_kt cnf cn) by (apply same_kt_sym, same_shape_kt; auto).
      assert (Hns : has_subst next = false) by (eapply ax_check_no_subst; eauto).
      assert (Hnd' : NoDup (ids (cnf ++ [vb]))).
      { rewrite ids_app. apply NoDup_snoc; auto. }
      destruct (IH (sub_s su next) (cnf ++ [vb]) m2) as [N1 [N2 [N3 N4]]];
        [rewrite size_sub; lia|exact Hax'|exact Hinv'|].
      destruct (lin f (sub_s su next) (cnf ++ [vb]) m2) as [n' m3] eqn:En. cbn [fst snd] in *.
      rewrite binders_sub in N3 by auto.
      apply post_wrap; auto.
      + apply subst_ok; auto.
        * apply same_kt_app; auto. apply same_kt_refl.
        * intros b Hb. apply has_b_In; auto. apply in_app_or in Hb. destruct Hb; auto.
        * apply lin_check_create_intro; auto.
          rewrite ids_app. apply NoDup_app_iff. repeat split; auto;
            try (intros x Hx Hx'; apply (F4 _ Hx); auto).
      + lia.
      + rewrite !app_length. f_equal. symmetry. apply same_shape_length; auto.
      + rewrite binders_ns_create, binders_create, Hbnc, N3. auto.
      + intros x Hx. rewrite ids_app in Hx. apply in_app_or in Hx. destruct Hx as [Hx|Hx].
        * assert (x <= m2) by (eapply freshen_bound; eauto). lia.
        * apply Hb1 in Hx. lia.
      + rewrite binders_create. intros x [<-|Hx]; [lia|].
        apply in_app_or in Hx. destruct Hx as [Hx|Hx]; auto. apply Hbdc in Hx. lia.
  Qed.
End Cases.

Theorem lin_good : forall S f, good S f.
Proof.
  intros S; induction f as [|f IH]; intros s c m Hsz Hax Hinv.
  - pose proof (stmt_size_pos s). lia.
  - destruct s.
    + discriminate.
    + apply case_call; auto.
    + apply case_let; auto.
    + apply case_switch; auto.
    + apply case_create; auto.
    + apply case_invoke; auto.
    + apply case_literal; auto.
    + apply case_op; auto.
    + apply case_print; auto.
    + apply case_ifc; auto.
    + apply case_exit; auto.
Qed.

Lemma def_ok_inv : forall S m d, def_ok S m d = true ->
  ax_check S (dctx d) (dbody d) = true /\ inv (dctx d) (dbody d) m.
Proof.
  unfold def_ok; intros S m d H. btrue. split; auto.
  apply inv_of_nodup.
  - apply nodupb_NoDup; auto.
  - rewrite forallb_forall in H0. intros x Hx. apply H0 in Hx. apply N.leb_le in Hx. auto.
Qed.
Lemma def_ok_mono : forall S m m' d, m <= m' -> def_ok S m d = true -> def_ok S m' d = true.
Proof.
  unfold def_ok; intros S m m' d Hm H. btrue; auto.
  rewrite forallb_forall in *. intros x Hx. apply H0 in Hx. apply N.leb_le in Hx. apply N.leb_le. lia.
Qed.

(* per definition: exact environments, unique binders kept, every bound id below the new max_id *)
Definition def_post (S : sigs) (d : def) (m : N) (r : def * N) : Prop :=
  lin_check_def S (fst r) = true /\ m <= snd r /\
  dname (fst r) = dname d /\ dctx (fst r) = dctx d /\
  binders_ns (dbody (fst r)) = binders (dbody d) /\
  (forall x, In x (binders (dbody (fst r))) -> x <= snd r).

Theorem linearize_def_spec : forall S d m, def_ok S m d = true -> def_post S d m (lin_def d m).
Proof.
  intros S d m H. apply def_ok_inv in H. destruct H as [Hax Hinv].
  unfold lin_def, lin_check_def, def_post.
  destruct (lin_good S (stmt_size (dbody d)) (dbody d) (dctx d) m) as [H1 [H2 [H3 H4]]]; auto.
  destruct (lin (stmt_size (dbody d)) (dbody d) (dctx d) m) as [b m'] eqn:E. simpl in *.
  repeat split; auto.
Qed.

Lemma Forall2_impl' : forall {A B} (P Q : A -> B -> Prop) l l',
  (forall a b, P a b -> Q a b) -> Forall2 P l l' -> Forall2 Q l l'.
Proof. intros A B P Q l l' H F; induction F; constructor; auto. Qed.

Definition labels_of (ds : list def) : list (ident * ctx) := map (fun d => (dname d, dctx d)) ds.

Lemma lin_defs_spec : forall S ds m,
  (forall d, In d ds -> def_ok S m d = true) ->
  m <= snd (lin_defs ds m) /\
  Forall2 (fun d d' => exists m0 m1, m <= m0 /\ m1 <= snd (lin_defs ds m) /\ def_post S d m0 (d', m1))
          ds (fst (lin_defs ds m)).
Proof.
  intros S ds; induction ds as [|d r IH]; intros m H; simpl.
  - split; [lia|constructor].
  - pose proof (linearize_def_spec S d m (H d (or_introl eq_refl))) as D.
    destruct (lin_def d m) as [d' m1] eqn:E.
    assert (Hm1 : m <= m1) by (destruct D as [_ [D2 _]]; auto).
    destruct (IH m1) as [R1 R2].
    { intros d0 Hd0. eapply def_ok_mono; [|apply H; simpl; auto]. auto. }
    destruct (lin_defs r m1) as [r' m2] eqn:E'. simpl in *.
    split; [lia|]. constructor.
    + exists m, m1. split; [lia|]. split; [lia|]. exact D.
    + eapply Forall2_impl'; [|exact R2]. intros a b [m0 [m3 [A1 [A2 A3]]]].
      exists m0, m3. split; [lia|]. split; [lia|]. exact A3.
Qed.

Lemma lin_defs_labels : forall S ds ds' (m' : N),
  Forall2 (fun d d' => exists m0 m1, def_post S d m0 (d', m1)) ds ds' -> labels_of ds' = labels_of ds.
Proof.
  intros S ds ds' m' H; induction H as [|d d' ds ds' [m0 [m1 D]] H IH]; simpl; auto.
  destruct D as [_ [_ [D3 [D4 _]]]]. simpl in *. rewrite D3, D4, IH. auto.
Qed.

Lemma prog_ok_defs : forall p, prog_ok p = true -> forall d, In d (pdefs p) -> def_ok (sigs_of p) (pmax p) d = true.
Proof. unfold prog_ok; intros p H. rewrite forallb_forall in H. auto. Qed.

Lemma sigs_of_linearize : forall p, prog_ok p = true -> sigs_of (linearize p) = sigs_of p.
Proof.
  intros p H. unfold linearize, sigs_of.
  destruct (lin_defs_spec (sigs_of p) (pdefs p) (pmax p) (prog_ok_defs p H)) as [H1 H2].
  destruct (lin_defs (pdefs p) (pmax p)) as [ds m] eqn:E. simpl in *.
  fold (labels_of ds). fold (labels_of (pdefs p)).
  rewrite (lin_defs_labels (sigs_of p) (pdefs p) ds m); auto.
  eapply Forall2_impl'; [|exact H2]. intros a b [m0 [m1 [_ [_ A]]]]. eauto.
Qed.

(* C05, exact environments: every definition of the linearized program passes the checker of the
   ordered linear discipline *)
Theorem linearize_exact : forall p, prog_ok p = true -> lin_check_prog (linearize p) = true.
Proof.
  intros p H. unfold lin_check_prog. rewrite sigs_of_linearize by auto.
  unfold linearize.
  destruct (lin_defs_spec (sigs_of p) (pdefs p) (pmax p) (prog_ok_defs p H)) as [H1 H2].
  destruct (lin_defs (pdefs p) (pmax p)) as [ds m] eqn:E. simpl in *.
  apply forallb_forall. intros d' Hd'.
  clear E. induction H2 as [|d d2 ds0 ds' [m0 [m1 [_ [_ D]]]] H2 IH]; simpl in *; [tauto|].
  destruct Hd' as [<-|Hd']; auto. apply D.
Qed.

Theorem linearize_exact_wt : forall p, prog_ok p = true ->
  Forall (fun d => lin_wt (sigs_of (linearize p)) (dctx d) (dbody d)) (pdefs (linearize p)).
Proof.
  intros p H. apply linearize_exact in H. unfold lin_check_prog in H.
  rewrite forallb_forall in H. apply Forall_forall. intros d Hd.
  apply lin_check_sound. apply H; auto.
Qed.

(* C05, unique binders: definition by definition the binders (other than the targets of the
   inserted substitutions) are literally those of the input, hence still pairwise distinct and
   distinct from the parameters; every id bound anywhere in the output - inserted substitutions
   included - is at most the new max_id, which is at least the old one *)
Theorem linearize_unique : forall p, prog_ok p = true ->
  pmax p <= pmax (linearize p) /\
  Forall2 (fun d d' =>
             dname d' = dname d /\ dctx d' = dctx d /\
             binders_ns (dbody d') = binders (dbody d) /\
             NoDup (ids (dctx d') ++ binders_ns (dbody d')) /\
             (forall x, In x (binders (dbody d')) -> x <= pmax (linearize p)))
          (pdefs p) (pdefs (linearize p)).
Proof.
  intros p H. unfold linearize.
  destruct (lin_defs_spec (sigs_of p) (pdefs p) (pmax p) (prog_ok_defs p H)) as [H1 H2].
  pose proof (prog_ok_defs p H) as Hd.
  destruct (lin_defs (pdefs p) (pmax p)) as [ds m] eqn:E. simpl in *. split; auto.
  clear E. induction H2 as [|d d' ds0 ds' [m0 [m1 [A1 [A2 D]]]] H2 IH]; constructor.
  - destruct D as [_ [_ [D3 [D4 [D5 D6]]]]]. simpl in *.
    repeat split; auto.
    + rewrite D4, D5. specialize (Hd d (or_introl eq_refl)). unfold def_ok in Hd. btrue.
      apply nodupb_NoDup; auto.
    + intros x Hx. apply D6 in Hx. lia.
  - apply IH. intros d0 Hd0. apply Hd. simpl; auto.
Qed.

(* operands of op / ifc / print / exit stay in the environment passed on *)
Lemma has_snoc : forall c vb x k t, has c x k t = true -> has (c ++ [vb]) x k t = true.
Proof.
  unfold has; intros c vb x k t H. rewrite lookup_b_app.
  destruct (lookup_b c (idn x)); auto. discriminate.
Qed.
Definition ops_clauses_sw (c0 : ctx) (cls : list clause) : bool :=
  forallb (fun cl => ops_kept (c0 ++ cl_ctx cl) (cl_body cl)) cls.
Definition ops_clauses_cr (env : ctx) (cls : list clause) : bool :=
  forallb (fun cl => ops_kept (cl_ctx cl ++ env) (cl_body cl)) cls.
Lemma ops_kept_switch : forall c v t cls,
  ops_kept c (Switch v t cls) =
  match split_lastn 1 c with Some (c0, _) => ops_clauses_sw c0 cls | None => false end.
Proof.
  intros; simpl. destruct (split_lastn 1 c) as [[c0 tl]|]; auto.
  induction cls as [|[[x cc] b] r IH]; simpl; auto.
  unfold cl_ctx, cl_body; simpl. rewrite IH; auto.
Qed.
Lemma ops_kept_create : forall c v t env cls next,
  ops_kept c (Create v t (Some env) cls next) =
  match split_lastn (length env) c with
  | Some (c0, _) => ops_clauses_cr env cls && ops_kept (c0 ++ [mkb v Cns t]) next
  | None => false end.
Proof.
  intros; simpl. destruct (split_lastn (length env) c) as [[c0 tl]|]; auto. f_equal.
  induction cls as [|[[x cc] b] r IH]; simpl; auto.
  unfold cl_ctx, cl_body; simpl. rewrite IH; auto.
Qed.

Theorem lin_check_ops_kept : forall S s c, lin_check S c s = true -> ops_kept c s = true.
Proof.
  intros S s; induction s using stmt_ind2; intros c Hc.
  - simpl in *. btrue. auto.
  - reflexivity.
  - simpl in *. btrue. destruct (split_lastn (length args) c) as [[c0 tl]|]; try discriminate. btrue. auto.
  - rewrite lin_check_switch in Hc. rewrite ops_kept_switch. btrue.
    destruct (split_lastn 1 c) as [[c0 [|b [|]]]|]; try discriminate. btrue.
    match goal with Hl : lin_clauses_sw _ _ _ = true |- _ =>
      unfold lin_clauses_sw in Hl; rewrite forallb_forall in Hl; rename Hl into HL end.
    unfold ops_clauses_sw. apply forallb_forall. intros cl Hcl.
    rewrite Forall_forall in H. apply H; auto.
  - destruct env as [env|]; [|simpl in Hc; btrue; discriminate].
    rewrite lin_check_create in Hc. rewrite ops_kept_create. btrue.
    destruct (split_lastn (length env) c) as [[c0 tl]|]; try discriminate. btrue; auto.
    match goal with Hl : lin_clauses_cr _ _ _ = true |- _ =>
      unfold lin_clauses_cr in Hl; rewrite forallb_forall in Hl; rename Hl into HL end.
    unfold ops_clauses_cr. apply forallb_forall. intros cl Hcl.
    rewrite Forall_forall in H. apply H; auto.
  - reflexivity.
  - simpl in *. btrue. auto.
  - simpl in *. btrue; auto; apply has_snoc; auto.
  - simpl in *. btrue; auto.
  - simpl in *. btrue; auto.
  - simpl in *. btrue; auto.
Qed.

Theorem linearize_keeps_operands : forall p, prog_ok p = true ->
  forallb (fun d => ops_kept (dctx d) (dbody d)) (pdefs (linearize p)) = true.
Proof.
  intros p H. apply linearize_exact in H. unfold lin_check_prog in H.
  rewrite forallb_forall in *. intros d Hd. eapply lin_check_ops_kept. apply H; auto.
Qed.
