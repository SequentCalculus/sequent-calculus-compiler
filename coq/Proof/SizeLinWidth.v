(* C19: the contexts met by the code generator on a LINEARIZED statement are bounded in terms of the
   statement BEFORE linearization:  ax_maxw (lin s c) |c| <= 2 |c| + 2 size(s).
   (The factor 2: a Create rearranges the context into  variables of the rest ++ captured environment,
   and a variable used on both sides occurs in both parts.)  With it the instruction count is
   size(linearized) x (5 + 4 size(before)) instead of size(linearized)^2. *)
From Coq Require Import String List ZArith NArith Bool Lia.
From SCC Require Import Base.Sexp Lang.AxSyn Lang.AxSize Model.Linearize Proof.LinBasics Proof.SizeLin Proof.SizeCodegen.
Import ListNotations.
Open Scope list_scope.
Open Scope N_scope.
Local Arguments N.add : simpl never.
Local Arguments N.mul : simpl never.
Local Arguments N.sub : simpl never.
Local Arguments len : simpl never.

Lemma ctx_eqb_len : forall a b, ctx_eqb a b = true -> len a = len b.
Proof. intros a b H. apply ctx_eqb_eq in H. subst. reflexivity. Qed.
Lemma len_combine_eq : forall {X Y} (a : list X) (b : list Y), len a = len b -> len (combine a b) = len a.
Proof. intros X Y a b H. unfold len in *. rewrite combine_length. lia. Qed.
Lemma len_vars : forall c, len (vars c) = len c.
Proof. intros. unfold vars. apply len_map. Qed.

Lemma ax_maxw_subst : forall re next n, ax_maxw (Substitute re next) n = N.max n (ax_maxw next (len re)).
Proof. reflexivity. Qed.

Definition mwb (s : stmt) (n : N) : N := 2 * n + 2 * ax_size s.

Section Clauses.
  Variable L : stmt -> ctx -> N -> stmt * N.
  Hypothesis HL : forall s c m, ax_maxw (fst (L s c m)) (len c) <= mwb s (len c).
  Variable mk : ctx -> ctx.

  (* [ml] = ax_maxw_sw n0 (Switch: body contexts nc ++ cc, g n = n0 - 1 + n) or ax_maxw_cr e (Create: cc ++ env, g n = n + e) *)
  Lemma lin_cls_maxw : forall (g : N -> N) (ml : list (ident * ctx * stmt) -> N) C,
    ml [] = 0 -> (forall x cc b r, ml ((x, cc, b) :: r) = N.max (ax_maxw b (g (len cc))) (ml r)) ->
    (forall cc, len (mk cc) = g (len cc)) -> (forall n, g n <= C + n) ->
    forall cls m, ml (fst (lin_cls L mk cls m)) <= 2 * C + 2 * ax_size_cls cls.
  Proof.
    intros g ml C Hnil Hcons Hmk HC. induction cls as [|[[x cc] b] r IH]; intros m; cbn [lin_cls].
    - cbn [fst ax_size_cls]. rewrite Hnil. lia.
    - pose proof (HL b (mk cc) m) as Hb. destruct (L b (mk cc) m) as [b' m'] eqn:E. cbn [fst] in Hb.
      specialize (IH m'). destruct (lin_cls L mk r m') as [r' m''] eqn:E2. cbn [fst] in *.
      rewrite Hcons. cbn [ax_size_cls]. rewrite (Hmk cc) in Hb. unfold mwb in Hb. pose proof (HC (len cc)). lia.
  Qed.
End Clauses.

(* the largest context met by the code generator *)
Lemma ax_maxw_le : forall s w, ax_maxw s w <= w + ax_size s.
Proof.
  induction s using stmt_ind2; intros w; try (cbn [ax_maxw ax_size]; lia).
  - specialize (IHs (len re)). cbn [ax_maxw ax_size]. lia.
  - specialize (IHs (w - len args + 1)). cbn [ax_maxw ax_size]. lia.
  - rewrite ax_maxw_switch, ax_size_switch.
    assert (ax_maxw_sw w cls <= w + ax_size_cls cls); [|lia].
    induction H as [|[[x cx] b] r Hb Hr IH]; cbn [ax_maxw_sw ax_size_cls]; [lia|]. unfold cl_body in Hb; cbn [snd] in Hb.
    specialize (Hb (w - 1 + len cx)). lia.
  - rewrite ax_maxw_create, ax_size_create. specialize (IHs (w - env_len env + 1)).
    assert (ax_maxw_cr (env_len env) cls <= env_len env + ax_size_cls cls).
    { induction H as [|[[x cx] b] r Hb Hr IH]; cbn [ax_maxw_cr ax_size_cls]; [lia|]. unfold cl_body in Hb; cbn [snd] in Hb.
      specialize (Hb (len cx + env_len env)). lia. }
    unfold env_len in *. destruct env; lia.
  - specialize (IHs (w + 1)). cbn [ax_maxw ax_size]. lia.
  - specialize (IHs (w + 1)). cbn [ax_maxw ax_size]. lia.
  - specialize (IHs w). cbn [ax_maxw ax_size]. lia.
  - specialize (IHs1 w). specialize (IHs2 w). cbn [ax_maxw ax_size]. lia.
Qed.

Theorem lin_maxw : forall fuel s c m, ax_maxw (fst (lin fuel s c m)) (len c) <= mwb s (len c).
Proof.
  unfold mwb. induction fuel as [|f IH]; intros s c m.
  - cbn [lin fst]. unfold out_of_fuel. cbn [ax_maxw]. lia.
  - destruct s.
    + (* Substitute: returned unchanged *) cbn [lin fst]. pose proof (ax_maxw_le (Substitute re s) (len c)). lia.
    + (* Call *)
      cbn [lin]. destruct (ctx_eqb c args).
      * cbn [fst ax_maxw ax_size]. lia.
      * pose proof (freshen_len args [] m). destruct (freshen args [] m) as [fr m1]. cbn [fst] in *.
        cbn [ax_maxw ax_size]. pose proof (len_combine fr (vars args)). lia.
    + (* Let *)
      cbn [lin].
      set (nc := filter_by_set c (fv s)).
      pose proof (len_fbs c (fv s)) as Hnc. fold nc in Hnc.
      destruct (ctx_eqb c (nc ++ args)) eqn:Eq.
      * apply ctx_eqb_len in Eq. rewrite len_app in Eq.
        pose proof (IH s (nc ++ [mkb v Prd t]) m) as I. destruct (lin f s (nc ++ [mkb v Prd t]) m) as [n' m1].
        cbn [fst] in *. rewrite len_app, len_cons, len_nil in I. cbn [ax_maxw ax_size].
        replace (len c - len args + 1) with (len nc + (1 + 0)) by lia. lia.
      * pose proof (freshen_len args (ids nc) m) as Hf. destruct (freshen args (ids nc) m) as [args' m1].
        pose proof (IH s (nc ++ [mkb v Prd t]) m1) as I. destruct (lin f s (nc ++ [mkb v Prd t]) m1) as [n' m2].
        cbn [fst] in *. rewrite len_app, len_cons, len_nil in I.
        cbn [ax_maxw ax_size].
        assert (Hc : len (combine (nc ++ args') (vars (nc ++ args))) = len nc + len args).
        { rewrite len_combine_eq; rewrite ?len_vars, !len_app; lia. }
        rewrite Hc. replace (len nc + len args - len args' + 1) with (len nc + (1 + 0)) by lia. lia.
    + (* Switch *)
      cbn [lin].
      set (nc := filter_by_set c (fv_clauses cls)).
      pose proof (len_fbs c (fv_clauses cls)) as Hnc. fold nc in Hnc.
      destruct (ctx_eqb c (nc ++ [mkb v Prd t])) eqn:Eq.
      * apply ctx_eqb_len in Eq. rewrite len_app, len_cons, len_nil in Eq.
        pose proof (lin_cls_maxw (lin f) IH (fun cc => nc ++ cc) (fun n => len c - 1 + n) (ax_maxw_sw (len c)) (len c)
                      eq_refl (fun _ _ _ _ => eq_refl) ltac:(intros cc; cbv beta; rewrite len_app; lia) ltac:(intros n; cbv beta; lia) cls m) as HC.
        destruct (lin_cls (lin f) (fun cc => nc ++ cc) cls m) as [cls' m1]. cbn [fst] in *.
        rewrite ax_maxw_switch, ax_size_switch. lia.
      * pose proof (lin_cls_maxw (lin f) IH (fun cc => nc ++ cc) (fun n => len nc + 1 - 1 + n) (ax_maxw_sw (len nc + 1)) (len c)
                      eq_refl (fun _ _ _ _ => eq_refl) ltac:(intros cc; cbv beta; rewrite len_app; lia) ltac:(intros n; cbv beta; lia) cls m) as HC.
        destruct (lin_cls (lin f) (fun cc => nc ++ cc) cls m) as [cls' m1]. cbn [fst] in HC.
        rewrite ax_size_switch.
        destruct (mem (idn v) (ids nc)); cbn [fst]; rewrite ax_maxw_subst, ax_maxw_switch;
          match goal with |- context [len (combine ?a ?b)] =>
            assert (Hc : len (combine a b) = len nc + 1) by (rewrite len_combine_eq; rewrite ?len_vars, !len_app, !len_cons, !len_nil; lia) end;
          rewrite Hc; lia.
    + (* Create *)
      cbn [lin].
      set (cn := filter_by_set c (fv s)).
      set (k := List.length cn).
      set (cc_ := filter_by_set (skipn k c ++ firstn k c) (fv_clauses cls)).
      pose proof (len_fbs c (fv s)) as Hcn. fold cn in Hcn.
      pose proof (len_fbs (skipn k c ++ firstn k c) (fv_clauses cls)) as Hcc. fold cc_ in Hcc. rewrite len_rot in Hcc.
      pose proof (lin_cls_maxw (lin f) IH (fun cc => cc ++ cc_) (fun n => n + len cc_) (ax_maxw_cr (len cc_)) (len c)
                    eq_refl (fun _ _ _ _ => eq_refl) ltac:(intros cc; cbv beta; rewrite len_app; lia) ltac:(intros n; cbv beta; lia) cls m) as HC.
      destruct (lin_cls (lin f) (fun cc => cc ++ cc_) cls m) as [cls' m1]. cbn [fst] in HC.
      rewrite ax_size_create.
      destruct (ctx_eqb c (cn ++ cc_)) eqn:Eq.
      * apply ctx_eqb_len in Eq. rewrite len_app in Eq.
        pose proof (IH s (cn ++ [mkb v Cns t]) m1) as I. destruct (lin f s (cn ++ [mkb v Cns t]) m1) as [n' m2].
        cbn [fst] in *. rewrite len_app, len_cons, len_nil in I.
        rewrite ax_maxw_create. cbn [env_len].
        replace (len c - len cc_ + 1) with (len cn + (1 + 0)) by lia. destruct env; lia.
      * pose proof (freshen_len cn (ids cc_) m1) as Hf. destruct (freshen cn (ids cc_) m1) as [cnf m2]. cbn [fst] in Hf.
        set (su := combine (ids cn) (vars cnf)).
        destruct (measures_sub su s) as [S1 [S2 S3]].
        pose proof (IH (sub_s su s) (cnf ++ [mkb v Cns t]) m2) as I.
        destruct (lin f (sub_s su s) (cnf ++ [mkb v Cns t]) m2) as [n' m3].
        cbn [fst] in *. rewrite S1 in I. rewrite len_app, len_cons, len_nil in I.
        rewrite ax_maxw_subst, ax_maxw_create. cbn [env_len].
        match goal with |- context [len (combine ?a ?b)] =>
          assert (Hc : len (combine a b) = len cn + len cc_) by (rewrite len_combine_eq; rewrite ?len_vars, !len_app; lia) end.
        rewrite Hc. replace (len cn + len cc_ - len cc_ + 1) with (len cnf + (1 + 0)) by lia. destruct env; lia.
    + (* Invoke *)
      cbn [lin]. destruct (ctx_eqb c (args ++ [mkb v Cns t])).
      * cbn [fst ax_maxw ax_size]. lia.
      * pose proof (freshen_len args [idn v] m). destruct (freshen args [idn v] m) as [fr m1]. cbn [fst] in *.
        cbn [ax_maxw ax_size].
        match goal with |- context [len (combine ?a ?b)] => pose proof (len_combine a b) as Hc end.
        rewrite len_app, len_cons, !len_nil in *. lia.
    + (* Literal *)
      cbn [lin].
      set (nc := filter_by_set c (fv s)). pose proof (len_fbs c (fv s)) as Hnc. fold nc in Hnc.
      pose proof (IH s (nc ++ [mkb v Ext I64]) m) as I. destruct (lin f s (nc ++ [mkb v Ext I64]) m) as [n' m1].
      rewrite len_app, len_cons, len_nil in I. cbn [fst] in I.
      destruct (ctx_eqb c nc) eqn:Eq; cbn [fst ax_maxw ax_size].
      * apply ctx_eqb_len in Eq. replace (len c + 1) with (len nc + (1 + 0)) by lia. lia.
      * unfold self_re. rewrite len_combine_eq by (rewrite len_vars; reflexivity).
        replace (len nc + 1) with (len nc + (1 + 0)) by lia. lia.
    + (* Op *)
      cbn [lin].
      set (nc := filter_by_set c (add (idn b) (add (idn a) (fv s)))).
      pose proof (len_fbs c (add (idn b) (add (idn a) (fv s)))) as Hnc. fold nc in Hnc.
      pose proof (IH s (nc ++ [mkb v Ext I64]) m) as I. destruct (lin f s (nc ++ [mkb v Ext I64]) m) as [n' m1].
      rewrite len_app, len_cons, len_nil in I. cbn [fst] in I.
      destruct (ctx_eqb c nc) eqn:Eq; cbn [fst ax_maxw ax_size].
      * apply ctx_eqb_len in Eq. replace (len c + 1) with (len nc + (1 + 0)) by lia. lia.
      * unfold self_re. rewrite len_combine_eq by (rewrite len_vars; reflexivity).
        replace (len nc + 1) with (len nc + (1 + 0)) by lia. lia.
    + (* PrintI64 *)
      cbn [lin].
      set (nc := filter_by_set c (add (idn v) (fv s))).
      pose proof (len_fbs c (add (idn v) (fv s))) as Hnc. fold nc in Hnc.
      pose proof (IH s nc m) as I. destruct (lin f s nc m) as [n' m1]. cbn [fst] in I.
      destruct (ctx_eqb c nc) eqn:Eq; cbn [fst ax_maxw ax_size].
      * apply ctx_eqb_len in Eq. rewrite Eq. lia.
      * unfold self_re. rewrite len_combine_eq by (rewrite len_vars; reflexivity). lia.
    + (* IfC *)
      cbn [lin].
      pose proof (IH s2 c m) as I1. destruct (lin f s2 c m) as [t' m1].
      pose proof (IH s3 c m1) as I2. destruct (lin f s3 c m1) as [e' m2]. cbn [fst] in *.
      cbn [ax_maxw ax_size]. lia.
    + (* Exit *) cbn [lin fst ax_maxw ax_size]. lia.
Qed.

(* per definition and per program: the code-generation bound of the linearized program in terms of the
   sizes before and after linearization *)
Lemma cg_bound_lin_def : forall d m,
  1 + cg_bound (dbody (fst (lin_def d m))) (len (dctx (fst (lin_def d m))))
  <= ax_size_def (fst (lin_def d m)) * (5 + 4 * ax_size_def d).
Proof.
  intros d m. unfold lin_def.
  pose proof (lin_maxw (stmt_size (dbody d)) (dbody d) (dctx d) m) as H.
  destruct (lin (stmt_size (dbody d)) (dbody d) (dctx d) m) as [b m1]. cbn [fst dbody dctx] in *.
  pose proof (cg_bound_poly b (len (dctx d))) as P. unfold cg_unit in P. unfold mwb in H.
  unfold ax_size_def. cbn [dbody dctx].
  assert (Q : ax_size b * (5 + 2 * ax_maxw b (len (dctx d))) <= ax_size b * (5 + 4 * (1 + len (dctx d) + ax_size (dbody d))))
    by (apply N.mul_le_mono_l; lia).
  set (sz := ax_size b) in *. set (n := len (dctx d)) in *. set (s0 := ax_size (dbody d)) in *.
  assert (R : cg_bound b n <= sz * (5 + 4 * (1 + n + s0))) by lia.
  clear P Q H. generalize dependent (cg_bound b n). intros cgb R.
  replace ((1 + n + sz) * (5 + 4 * (1 + n + s0))) with (5 + 4 * (1 + n + s0) + n * (5 + 4 * (1 + n + s0)) + sz * (5 + 4 * (1 + n + s0))) by lia.
  lia.
Qed.
Lemma cg_bound_lin_defs : forall ds m,
  cg_bound_defs (fst (lin_defs ds m)) <= ax_size_defs (fst (lin_defs ds m)) * (5 + 4 * ax_size_defs ds).
Proof.
  induction ds as [|d r IH]; intros m; cbn [lin_defs]; [cbn; lia|].
  pose proof (cg_bound_lin_def d m) as Hd. destruct (lin_def d m) as [d' m1]. specialize (IH m1).
  destruct (lin_defs r m1) as [r' m2]. cbn [fst] in *. cbn [cg_bound_defs ax_size_defs].
  assert (H1 : ax_size_def d' * (5 + 4 * ax_size_def d) <= ax_size_def d' * (5 + 4 * (ax_size_def d + ax_size_defs r)))
    by (apply N.mul_le_mono_l; lia).
  assert (H2 : ax_size_defs r' * (5 + 4 * ax_size_defs r) <= ax_size_defs r' * (5 + 4 * (ax_size_def d + ax_size_defs r)))
    by (apply N.mul_le_mono_l; lia).
  rewrite N.mul_add_distr_r. lia.
Qed.
Theorem cg_bound_linearize : forall p,
  cg_bound_defs (pdefs (linearize p)) <= ax_size_prog (linearize p) * (5 + 4 * ax_size_prog p).
Proof.
  intros p. unfold linearize, ax_size_prog.
  pose proof (cg_bound_lin_defs (pdefs p) (pmax p)) as H. destruct (lin_defs (pdefs p) (pmax p)) as [ds m]. exact H.
Qed.
