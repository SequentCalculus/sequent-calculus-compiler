(* C12 after fix 5b8c76f of /repo (Def::check compares the declared return type of `main` with i64):
   the clause `the body of main has type i64` of the guard prog_tyguard need not be asked separately of a
   program that comes out of the checker.
     [prog_tyguard_src p]   prog_tyguard with EVERY definition - main included - treated alike: the annotated body has
                            the declared return type (after compile_ty) and that type is declared.  Nothing about main's type.
     tyguard_src_checked    Check.check src = COk p -> prog_tyguard_src p = true -> prog_tyguard p = true
   because every `main` of a checked program returns i64 (Proof/CheckFixed.v check_gen_main_i64, all programs), and
   compile_ty i64 = i64.  Hence the typing-preservation theorem of fun2core and the composition of all stages for
   CHECKED programs under the guard without the main clause.
   (prog_tyguard itself still carries the clause: it is a statement about arbitrary annotated programs, and
   `def main(): Bar { B }` as an fcprog - which the checker rejects - still translates to an ill-typed
   Core program: Proof/Fun2CoreTyRefute.v.) *)
From Coq Require Import List ZArith NArith String Bool.
From SCC Require Import Base.Sexp Lang.SynUtil Lang.FunSyn Lang.FunTy Lang.CoreSyn Model.Check Sem.FunTyping Sem.CoreCheck
  Model.Fun2Core Model.Fun2CoreGuard Model.Fun2CoreTyGuard Proof.FunEq Proof.CheckFixed Proof.Fun2CoreTyProg Proof.Fun2CoreTyTotal.
Import ListNotations.
Open Scope string_scope.
Open Scope list_scope.

Definition def_tyguard_src (p : fcprog) (data codata : list ctydecl) (d : fdef) : bool :=
  nodup_str (fvars (fdctx d)) && ctx_tyd data codata (compile_ctx (fdctx d))
  && tg p data codata (compile_ctx (fdctx d)) (fdbody d)
  && (has_ty (fdbody d) (compile_ty (fdret d)) && tyd data codata (compile_ty (fdret d))).
Definition prog_tyguard_src (p : fcprog) : bool :=
  decls_tyguard p && forallb (def_tyguard_src p (cdata_of p) (ccodata_of p)) (fcpdefs p).

Lemma def_tyguard_src_main : forall p data codata d,
  main_ret_ok d = true -> def_tyguard_src p data codata d = true -> def_tyguard p data codata d = true.
Proof.
  intros p data codata d Hm H. unfold def_tyguard_src in H. unfold def_tyguard.
  apply andb_true_iff in H. destruct H as [H Hr]. rewrite H. simpl.
  unfold main_ret_ok in Hm. destruct (String.eqb (fdname d) "main"); [|exact Hr].
  apply fty_eqb_eq in Hm. rewrite Hm in Hr. rewrite Hm. simpl in Hr. simpl.
  apply andb_true_iff in Hr. rewrite (proj1 Hr). rewrite orb_true_r. reflexivity.
Qed.
Lemma tyguard_src_main : forall p,
  forallb main_ret_ok (fcpdefs p) = true -> prog_tyguard_src p = true -> prog_tyguard p = true.
Proof.
  intros p Hm H. unfold prog_tyguard_src in H. unfold prog_tyguard.
  apply andb_true_iff in H. destruct H as [Hd H]. rewrite Hd. simpl.
  rewrite forallb_forall in *. intros d Hin. apply def_tyguard_src_main; auto.
Qed.
(* for integer mains the two guards coincide *)
Lemma tyguard_main_src : forall p,
  forallb main_ret_ok (fcpdefs p) = true -> prog_tyguard p = true -> prog_tyguard_src p = true.
Proof.
  intros p Hm H. unfold prog_tyguard in H. unfold prog_tyguard_src.
  apply andb_true_iff in H. destruct H as [Hd H]. rewrite Hd. simpl.
  rewrite forallb_forall in *. intros d Hin. specialize (H d Hin). specialize (Hm d Hin).
  unfold def_tyguard in H. unfold def_tyguard_src.
  apply andb_true_iff in H. destruct H as [H Hr]. rewrite H. simpl.
  unfold main_ret_ok in Hm. destruct (String.eqb (fdname d) "main"); [|exact Hr].
  apply fty_eqb_eq in Hm. rewrite Hm. simpl. apply andb_true_iff in Hr. rewrite (proj1 Hr). reflexivity.
Qed.

Theorem tyguard_src_checked : forall eager src p,
  Check.check_gen eager src = COk p -> prog_tyguard_src p = true -> prog_tyguard p = true.
Proof.
  intros eager src p H G. apply tyguard_src_main; [|exact G]. exact (check_gen_main_i64 eager src p H).
Qed.

Theorem fun2core_preserves_typing_checked : forall src p c,
  Check.check src = COk p -> prog_tyguard_src p = true -> compile_prog p = Fun2Core.Ok c -> wt_core c = true.
Proof.
  intros src p c H G E. exact (fun2core_preserves_typing_frag2 p c (tyguard_src_checked true src p H G) E).
Qed.
Theorem fun2core_total_checked : forall src p,
  Check.check src = COk p -> prog_tyguard_src p = true -> exists c, compile_prog p = Fun2Core.Ok c.
Proof.
  intros src p H G. exact (fun2core_total_guarded p (tyguard_src_checked true src p H G)).
Qed.
