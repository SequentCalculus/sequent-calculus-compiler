(* Proof/ShrinkBindersOk.v (C12, fragment 2) - LinCheck's binder condition on the output of shrinking:
   when the binders of every definition of the input are GLOBALLY distinct (and distinct from its
   parameters) and all ids are bounded by max_id, the parameters and binders of every definition of the
   output are pairwise distinct and bounded by the output's max_id. *)
From Coq Require Import List ZArith NArith String Bool Lia.
From SCC Require Import Base.Sexp Lang.SynUtil Lang.CoreSyn Lang.AxSyn Sem.FsCheck Model.Shrink Model.LinCheck
     Model.WtDefs Proof.LinBasics Proof.ShrinkProof Proof.ShrinkRn Proof.ShrinkSimBase Proof.ShrinkSimProg
     Proof.ShrinkOld Proof.ShrinkTyCases.
Import ListNotations.
Open Scope list_scope.
Local Open Scope nat_scope.

(* gub (Sem/FsFrag2.v) is stated with its own copy of the binder list *)
Lemma fs_binders_eq_all :
  (forall t, fs_binders_term t = cbinders_term t) /\
  (forall c, cids (clause_ctx c) ++ fs_binders (clause_body c) = cids (clause_ctx c) ++ cbinders (clause_body c)) /\
  (forall s, fs_binders s = cbinders s).
Proof.
  apply fs_mutind; intros; try reflexivity; try (simpl; rewrite ?H, ?H0; reflexivity).
Qed.
Lemma fs_binders_eq : forall s, fs_binders s = cbinders s.
Proof. apply fs_binders_eq_all. Qed.

Lemma lin_binders_eq : forall s, pre_linear s = true -> LinCheck.binders s = ShrinkProof.binders s.
Proof.
  apply (stmt_ind' (fun s => pre_linear s = true -> LinCheck.binders s = ShrinkProof.binders s)); intros; try reflexivity; try discriminate.
  - simpl in *. now rewrite H.
  - rewrite pre_linear_switch in H0. rewrite binders_switch. simpl. unfold cls_binders.
    induction H as [|[[x c] b] r Hb _ IH]; [reflexivity|]. simpl in *. apply andb_prop in H0 as [H1 H2]. now rewrite (Hb H1), (IH H2), app_assoc.
  - destruct env as [ce|]; [discriminate|]. rewrite pre_linear_create in H1. apply andb_prop in H1 as [H1 H2].
    rewrite binders_create. simpl. rewrite (H0 H2). f_equal. f_equal. unfold cls_binders.
    clear H0 H2. induction H as [|[[x c] b] r Hb _ IH]; [reflexivity|]. simpl in *. apply andb_prop in H1 as [H1 H2]. now rewrite (Hb H1), (IH H2), app_assoc.
  - simpl in *. now rewrite H.
  - simpl in *. now rewrite H.
  - simpl in *. now apply H.
  - simpl in *. apply andb_prop in H1 as [H1 H2]. now rewrite (H H1), (H0 H2).
Qed.

Lemma actx_le_ids : forall m c i, actx_le m c = true -> In i (ids c) -> (i <= m)%N.
Proof.
  intros m c i H Hi. unfold actx_le in H. rewrite forallb_forall in H. unfold ids in Hi. apply in_map_iff in Hi as (b & <- & Hb).
  apply N.leb_le. now apply H.
Qed.
Lemma ax_le_binders : forall m s, ax_le m s = true -> forall i, In i (ShrinkProof.binders s) -> (i <= m)%N.
Proof.
  intros m. apply (stmt_ind' (fun s => ax_le m s = true -> forall i, In i (ShrinkProof.binders s) -> (i <= m)%N)); intros; try (simpl in *; contradiction).
  - simpl in *. apply andb_prop in H0 as [_ H0]. eauto.
  - simpl in *. apply andb_prop in H0 as [H0 H2]. apply andb_prop in H0 as [H0 _]. destruct H1 as [<-|H1]; [now apply N.leb_le | eauto].
  - rewrite ax_le_switch in H0. rewrite binders_switch in H1. apply andb_prop in H0 as [_ H0]. unfold cls_le in H0. unfold cls_binders in H1.
    apply in_flat_map in H1 as (c & Hc & Hi). rewrite forallb_forall in H0. pose proof (H0 c Hc) as Hc'. apply andb_prop in Hc' as [A Bc].
    apply in_app_or in Hi as [Hi|Hi]; [eapply actx_le_ids; eauto|]. rewrite Forall_forall in H. eapply H; eauto.
  - rewrite ax_le_create in H1. rewrite binders_create in H2. apply andb_prop in H1 as [H1 Hn]. apply andb_prop in H1 as [H1 Hc]. apply andb_prop in H1 as [Hv _].
    destruct H2 as [<-|H2]; [now apply N.leb_le|]. apply in_app_or in H2 as [H2|H2]; [|eauto].
    unfold cls_le in Hc. unfold cls_binders in H2. apply in_flat_map in H2 as (c & Hcin & Hi). rewrite forallb_forall in Hc.
    pose proof (Hc c Hcin) as Hc'. apply andb_prop in Hc' as [A Bc].
    apply in_app_or in Hi as [Hi|Hi]; [eapply actx_le_ids; eauto|]. rewrite Forall_forall in H. eapply H; eauto.
  - simpl in *. apply andb_prop in H0 as [Hv H0]. destruct H1 as [<-|H1]; [now apply N.leb_le | eauto].
  - simpl in *. apply andb_prop in H0 as [H0 Hn]. apply andb_prop in H0 as [_ Hv]. destruct H1 as [<-|H1]; [now apply N.leb_le | eauto].
  - simpl in *. apply andb_prop in H0 as [_ H0]. eauto.
  - simpl in *. apply andb_prop in H1 as [H1 He]. apply andb_prop in H1 as [_ Ht]. apply in_app_or in H2 as [H2|H2]; eauto.
Qed.

Lemma cnt_def_in : forall l d x, In d l -> cnt (def_binders d) x <= cnt (lifted_binders l) x.
Proof.
  induction l as [|d0 r IH]; intros d x Hin; [contradiction|]. unfold lifted_binders. cbn [flat_map]. rewrite cnt_app.
  destruct Hin as [->|Hin]; [lia|]. specialize (IH d x Hin). unfold lifted_binders in IH. lia.
Qed.
Lemma NoDup_cnt : forall l : list N, (forall x, cnt l x <= 1) -> NoDup l.
Proof. intros l H. apply (NoDup_count_occ N.eq_dec). exact H. Qed.
Lemma cnt_NoDup : forall l : list N, NoDup l -> forall x, cnt l x <= 1.
Proof. intros l H. apply (NoDup_count_occ N.eq_dec). exact H. Qed.

Section BOk.
Variable p : fsprog.
Notation data := (fspdata p).
Notation codata := (fspcodata p).
Notation defs := (fspdefs p).
Notation m0 := (fspmax p).
Notation D := (data ++ [cont_int]).

Lemma defs_rel_old : forall ds used m rest, defs_rel D codata ds used m rest -> (m0 <= m)%N ->
  (forall d, In d ds -> NoDup (cids (fsdctx d) ++ cbinders (fsdbody d))) ->
  forall x, In x rest -> forall i, (i <= m0)%N -> cnt (ids (dctx x) ++ ShrinkProof.binders (dbody x)) i <= 1.
Proof.
  intros ds used m rest H. induction H as [used m|d r used m t st' rest Hsh Hr IH]; intros Hm Hg x Hx i Hi; [contradiction|].
  destruct (shrink_stmt_old m0 _ _ _ _ _ _ Hsh Hm) as [Hm1 (nd & Hl & Hc)]. cbn [s_lifted] in Hl. rewrite app_nil_r in Hl. subst nd.
  pose proof (cnt_NoDup _ (Hg d (or_introl eq_refl)) i) as Hgd. rewrite cnt_app in Hgd. specialize (Hc i Hi). rewrite cnt_app in Hc.
  destruct Hx as [<-|Hx].
  - cbn [dctx dbody]. rewrite ids_shrink_context, cnt_app. lia.
  - apply in_app_or in Hx as [Hx|Hx].
    + pose proof (cnt_def_in _ _ i Hx) as Hd. unfold def_binders in Hd. rewrite cnt_cons in Hd. lia.
    + apply (IH ltac:(cbn [s_max] in Hm1; lia) (fun d0 H0 => Hg d0 (or_intror H0)) x Hx i Hi).
Qed.

Theorem shrink_binders_ok : forall q,
  gub p = true -> ids_bounded p = true -> shrink_prog p = SOk q -> pre_linear_prog q = true -> binders_ok q = true.
Proof.
  intros q Hgub Hib Hsh Hpl.
  destruct (shrink_ids_bounded p q Hib Hsh) as [Hmq Hle].
  pose proof Hsh as Hsh0.
  unfold shrink_prog in Hsh. destruct (_ || _); [discriminate|].
  destruct (shrink_defs defs D codata (map fsdname defs) m0 []) as [[defs' mx]|] eqn:Esd; [|discriminate]. cbn [sbind] in Hsh.
  pose proof Esd as Esd'. eapply (shrink_defs_fr m0) in Esd' as [Hmm Hfc]; [| lia | exact Hib | apply fresh_cnt_nil].
  apply shrink_defs_rel in Esd as (rest & Eout & Hrel). cbn [frev rev_append app] in Eout. subst defs'.
  injection Hsh as <-. cbn [pdefs pmax] in *.
  unfold binders_ok. cbn [pdefs pmax]. apply forallb_forall. intros x Hx.
  unfold pre_linear_prog in Hpl. cbn [pdefs] in Hpl. rewrite forallb_forall in Hpl. rewrite (lin_binders_eq _ (Hpl x Hx)).
  apply andb_true_intro. split.
  - apply nodupb_NoDup. apply NoDup_cnt. intros i. destruct (N.leb i m0) eqn:Ei.
    + apply N.leb_le in Ei. eapply (defs_rel_old _ _ _ _ Hrel (N.le_refl _)); eauto.
      intros d Hd. unfold gub in Hgub. rewrite forallb_forall in Hgub. apply nodupb_NoDup. rewrite <- fs_binders_eq. now apply Hgub.
    + apply N.leb_gt in Ei. destruct (Hfc i Ei) as [Hc1 _]. pose proof (cnt_def_in _ _ i Hx) as Hd. unfold def_binders in Hd. rewrite cnt_cons in Hd. lia.
  - apply forallb_forall. intros i Hi. apply N.leb_le. rewrite forallb_forall in Hle. pose proof (Hle x Hx) as Hd. unfold def_le in Hd. apply andb_prop in Hd as [Hd1 Hd2].
    apply in_app_or in Hi as [Hi|Hi]; [eapply actx_le_ids; eauto | eapply ax_le_binders; eauto].
Qed.
End BOk.
