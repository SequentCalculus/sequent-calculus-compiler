(* C19: how many pseudo-instructions the parallel-move algorithm (Model/ParMoves.v) emits.
   For a move graph with in-degree <= 1 and duplicate-free target sets:
       #(Mov / Save / Restore) <= 2 * #edges + #keys
   (one Mov per target: every target is visited once and then deleted from the graph; at most one
   Save per visited node, because a node's target set mentions the root at most once; at most one
   Restore per root).  Without in-degree <= 1 the spanning "tree" of a root unfolds a DAG and the
   count can be exponential. *)
From Coq Require Import List Bool Arith NArith Lia.
From SCC Require Import Model.ParMoves.
Import ListNotations.

Section Count.
Variable T : Type.
Variable eqb : T -> T -> bool.
Hypothesis eqb_spec : forall a b, reflect (a = b) (eqb a b).
Notation tree := (tree T).
Notation amap := (amap T).

Lemma tree_moves_len : forall (tr : tree) p, length (tree_moves T p tr) = length (nodes T tr) + length (backs T p tr).
Proof.
  induction tr as [|t cs IH] using tree_ind2; intros p; cbn [tree_moves nodes backs]; [reflexivity|].
  rewrite app_length. cbn [length].
  assert (G : length (flat_map (tree_moves T t) cs) = length (flat_map (nodes T) cs) + length (flat_map (backs T t) cs)).
  { induction IH as [|c r Hc Hr IHr]; [reflexivity|]. cbn [flat_map]. rewrite !app_length, Hc, IHr. lia. }
  lia.
Qed.
Lemma children_moves_len : forall (cs : list tree) t,
  length (flat_map (tree_moves T t) cs) = length (flat_map (nodes T) cs) + length (flat_map (backs T t) cs).
Proof.
  induction cs as [|c r IH]; intros t; [reflexivity|]. cbn [flat_map]. rewrite !app_length, tree_moves_len, IH. lia.
Qed.

(* at most one back edge per node *)
Lemma st_backs_le pm (NT : nodup_targets T eqb pm) r : forall fuel n tr p,
  spanning_tree T eqb fuel pm r n = Some tr -> n <> r -> length (backs T p tr) <= length (nodes T tr).
Proof.
  induction fuel as [|f IH]; intros n tr p H Hn; [discriminate|]. cbn [spanning_tree] in H.
  destruct (eqb_spec r n) as [E|_]; [congruence|].
  destruct (lookup T eqb pm n) as [ts|] eqn:Lk.
  - destruct (mapM (spanning_tree T eqb f pm r) ts) as [cs|] eqn:M; [|discriminate]. inversion H; subst; clear H.
    cbn [backs nodes length]. apply mapM_Forall2 in M. pose proof (NT _ _ Lk) as ND.
    assert (G : length (flat_map (backs T n) cs) <= (if mem T eqb r ts then 1 else 0) + length (flat_map (nodes T) cs)).
    { clear Lk. induction M as [|t c ts cs Hc M IHM]; [cbn; lia|]. inversion ND as [|? ? Hnin ND']; subst.
      specialize (IHM ND'). cbn [flat_map mem existsb]. rewrite !app_length. fold (mem T eqb r ts).
      destruct (eqb_spec r t) as [E|Hne].
      - subst t. apply (st_root T eqb eqb_spec) in Hc. subst c. cbn [backs nodes length].
        assert (mem T eqb r ts = false) as Hm.
        { destruct (mem T eqb r ts) eqn:Em; [|reflexivity]. apply (mem_In T eqb eqb_spec) in Em. contradiction. }
        rewrite Hm in IHM. cbn [orb]. lia.
      - assert (length (backs T n c) <= length (nodes T c)) by (eapply IH; eauto).
        cbn [orb]. lia. }
    destruct (mem T eqb r ts); lia.
  - inversion H; subst. cbn. lia.
Qed.

Lemma root_moves_len pm (NT : nodup_targets T eqb pm) fuel k cs :
  root_for T eqb fuel pm k = Some (StartNode T k cs) ->
  length (root_moves T (StartNode T k cs)) <= 2 * length (flat_map (nodes T) cs) + 1.
Proof.
  unfold root_for. destruct (lookup T eqb pm k) as [ts|] eqn:Lk; [|discriminate].
  destruct (mapM _ _) as [cs'|] eqn:M; [|discriminate]. intros H; inversion H; subst cs'; clear H.
  apply mapM_Forall2 in M. cbn [root_moves]. rewrite app_length, children_moves_len.
  assert (G : length (flat_map (backs T k) cs) <= length (flat_map (nodes T) cs)).
  { assert (Hne : forall t, In t (remove1 T eqb k ts) -> t <> k) by (intros t Ht; apply (remove1_In T eqb eqb_spec) in Ht; tauto).
    induction M as [|t c ts' cs Hc M IHM]; [cbn; lia|]. cbn [flat_map]. rewrite !app_length.
    assert (length (backs T k c) <= length (nodes T c)) by (eapply st_backs_le; eauto; apply Hne; now left).
    assert (length (flat_map (backs T k) cs) <= length (flat_map (nodes T) cs)) by (apply IHM; intros; apply Hne; now right).
    lia. }
  destruct (existsb (refers_back T) cs); cbn [length]; lia.
Qed.

Lemma all_targets_filter D (pm : amap) :
  all_targets T (delete_targets T eqb D pm) = filter (fun t => negb (mem T eqb t D)) (all_targets T pm).
Proof.
  unfold all_targets, delete_targets. induction pm as [|[k ts] pm IH]; [reflexivity|].
  cbn [map flat_map fst snd]. rewrite IH. clear IH.
  generalize (flat_map snd pm). intros l. induction ts as [|x r IHr]; [reflexivity|].
  cbn [filter app]. destruct (negb (mem T eqb x D)); cbn [app]; rewrite IHr; reflexivity.
Qed.
Lemma filter_split_len {A} (f : A -> bool) l : length (filter f l) + length (filter (fun x => negb (f x)) l) = length l.
Proof. induction l as [|x r IH]; [reflexivity|]. cbn [filter]. destruct (f x); cbn [negb length]; lia. Qed.

Lemma delete_potential D (pm : amap) N :
  NoDup N -> incl N D -> incl N (all_targets T pm) ->
  length (all_targets T (delete_targets T eqb D pm)) + length N <= length (all_targets T pm).
Proof.
  intros ND HD HA. rewrite all_targets_filter.
  pose proof (filter_split_len (fun t => negb (mem T eqb t D)) (all_targets T pm)) as E.
  assert (length N <= length (filter (fun x => negb (negb (mem T eqb x D))) (all_targets T pm))).
  { apply NoDup_incl_length; [exact ND|]. intros x Hx. apply filter_In. split; [apply HA; exact Hx|].
    rewrite negb_involutive. apply (mem_In T eqb eqb_spec). apply HD. exact Hx. }
  lia.
Qed.

Theorem forest_moves_len fuel : forall keys (pm : amap) rs,
  indeg1 T eqb pm -> nodup_targets T eqb pm -> forest_loop T eqb fuel keys pm = Some rs ->
  length (flat_map (root_moves T) rs) <= 2 * length (all_targets T pm) + length keys.
Proof.
  induction keys as [|k ks IH]; intros pm rs ID NT H; cbn [forest_loop] in H.
  - inversion H; subst. cbn. lia.
  - destruct (root_for T eqb fuel pm k) as [r|] eqn:R; [|discriminate].
    destruct (forest_loop T eqb fuel ks _) as [rs'|] eqn:F; [|discriminate]. inversion H; subst; clear H.
    assert (exists cs, r = StartNode T k cs) as (cs & ->).
    { unfold root_for in R. destruct (lookup T eqb pm k); [|discriminate]. destruct (mapM _ _); inversion R; eauto. }
    destruct (root_for_spec T eqb eqb_spec pm ID NT fuel k cs R) as (ND & Hk & HE & _).
    pose proof (root_moves_len pm NT fuel k cs R) as HL.
    set (D := visited_by T (StartNode T k cs)) in *.
    assert (HD : incl (flat_map (nodes T) cs) D) by (intros x Hx; unfold D; cbn [visited_by]; apply in_or_app; right; exact Hx).
    assert (HA : incl (flat_map (nodes T) cs) (all_targets T pm)).
    { intros b Hb. apply in_flat_map in Hb as (c0 & Hc0 & Hb).
      destruct (nodes_have_edges T c0 k b Hb) as (a & Ha).
      apply (edge_all_targets T eqb pm a b). apply HE. apply in_flat_map. eauto. }
    pose proof (delete_potential D pm _ ND HD HA) as HP.
    assert (ID' : indeg1 T eqb (delete_targets T eqb D pm)).
    { intros a a' b E1 E2. apply (edge_delete T eqb eqb_spec) in E1 as [E1 _], E2 as [E2 _]. eapply ID; eauto. }
    assert (NT' : nodup_targets T eqb (delete_targets T eqb D pm)).
    { intros a ts Lk. rewrite lookup_delete in Lk. destruct (lookup T eqb pm a) as [ts0|] eqn:L0; [|discriminate].
      inversion Lk; subst. apply NoDup_filter. eauto. }
    specialize (IH _ _ ID' NT' F).
    cbn [flat_map length]. rewrite app_length. lia.
Qed.

Theorem parallel_moves_len fuel (A : amap) rs :
  indeg1 T eqb A -> nodup_targets T eqb A -> spanning_forest T eqb fuel A = Some rs ->
  length (flat_map (root_moves T) rs) <= 2 * length (all_targets T A) + length A.
Proof.
  intros ID NT H. unfold spanning_forest in H. pose proof (forest_moves_len fuel _ _ _ ID NT H) as G.
  rewrite map_length in G. exact G.
Qed.

(* with distinct keys the target lists are pairwise disjoint: the edge list has no duplicates *)
Lemma lookup_nodup_keys (m : amap) k ts : NoDup (map fst m) -> In (k, ts) m -> lookup T eqb m k = Some ts.
Proof.
  induction m as [|[k0 t0] m IH]; intros ND H; [contradiction|]. cbn [lookup]. inversion ND as [|? ? Hn ND']; subst.
  destruct H as [H|H].
  - inversion H; subst. destruct (eqb_spec k k); [reflexivity|congruence].
  - destruct (eqb_spec k k0) as [E|_]; [|apply IH; assumption]. subst k0. exfalso. apply Hn.
    apply in_map_iff. exists (k, ts). split; [reflexivity|exact H].
Qed.
Lemma all_targets_nodup (A : amap) :
  indeg1 T eqb A -> nodup_targets T eqb A -> NoDup (map fst A) -> NoDup (all_targets T A).
Proof.
  intros ID NT NK. assert (G : forall m, incl m A -> NoDup (map fst m) -> NoDup (all_targets T m)).
  { induction m as [|[k ts] m IH]; intros Hi ND; [constructor|]. unfold all_targets. cbn [flat_map snd].
    inversion ND as [|? ? Hn ND']; subst.
    assert (Lk : lookup T eqb A k = Some ts) by (apply lookup_nodup_keys; [exact NK | apply Hi; now left]).
    apply NoDup_app_intro.
    - eapply NT; eauto.
    - apply IH; [intros x Hx; apply Hi; now right | exact ND'].
    - intros b Hb1 Hb2. apply in_flat_map in Hb2 as ([k' ts'] & Hin & Hb2). cbn [snd] in Hb2.
      assert (Lk' : lookup T eqb A k' = Some ts') by (apply lookup_nodup_keys; [exact NK | apply Hi; now right]).
      assert (k = k') by (eapply ID; [exists ts; eauto | exists ts'; eauto]). subst k'.
      apply Hn. apply in_map_iff. exists (k, ts'). split; [reflexivity|exact Hin]. }
  apply G; [apply incl_refl | exact NK].
Qed.
End Count.

(* in-degree <= 1 is needed: on a chain of d diamonds (a -> b, c; b -> e; c -> e; e -> ...) the spanning
   tree of the first root unfolds the DAG: 2^(d+2) - 4 pseudo-instructions for 4 d edges *)
Fixpoint diamonds (d : nat) (base : nat) : amap nat :=
  match d with
  | O => []
  | S d' => (base, [base + 1; base + 2]) :: (base + 1, [base + 3]) :: (base + 2, [base + 3]) :: diamonds d' (base + 3)
  end.
Definition diamonds_count (d : nat) : option (N * N * N) :=
  let A := diamonds d 0 in
  match spanning_forest nat Nat.eqb (List.length (all_targets nat A) + 2) A with
  | Some rs => Some (N.of_nat (List.length (flat_map (root_moves nat) rs)), N.of_nat (List.length (all_targets nat A)), N.of_nat (List.length A))
  | None => None
  end.

(* Evaluating diamonds_count builds the subtree below every diamond twice.  The tree is the same both times:
   [diamond_tree] names it once, so that evaluation shares it; what is left to evaluation are the traversals
   of the first root's tree and the (empty) trees of the other roots. *)
Fixpoint diamond_tree (d base : nat) : tree nat :=
  match d with
  | O => Node nat base []
  | S d' => let t := diamond_tree d' (base + 3) in Node nat base [Node nat (base + 1) [t]; Node nat (base + 2) [t]]
  end.

Local Notation lookupn := (lookup nat Nat.eqb).
Local Notation stn := (spanning_tree nat Nat.eqb).

Lemma diamond_step f pm r n b c e t :
  r <> n -> r <> b -> r <> c ->
  lookupn pm n = Some [b; c] -> lookupn pm b = Some [e] -> lookupn pm c = Some [e] ->
  stn f pm r e = Some t ->
  stn (S (S f)) pm r n = Some (Node nat n [Node nat b [t]; Node nat c [t]]).
Proof.
  intros Rn Rb Rc Ln Lb Lc Ht. apply Nat.eqb_neq in Rn, Rb, Rc.
  cbn [spanning_tree]. rewrite Rn, Ln. cbn [mapM spanning_tree]. rewrite Rb, Rc, Lb, Lc. cbn [mapM]. rewrite Ht. reflexivity.
Qed.

Lemma lookup_app_none (pre m : amap nat) k : lookupn pre k = None -> lookupn (pre ++ m) k = lookupn m k.
Proof. induction pre as [|[k' ts] pre IH]; cbn; [reflexivity|]. destruct (Nat.eqb k k'); [discriminate|exact IH]. Qed.

Lemma diamonds_tree : forall d base pre f r,
  (forall k, base <= k -> lookupn pre k = None) -> r < base ->
  stn (2 * d + 1 + f) (pre ++ diamonds d base) r base = Some (diamond_tree d base).
Proof.
  induction d as [|d IH]; intros base pre f r Hpre Hr.
  - cbn. rewrite (proj2 (Nat.eqb_neq r base)) by lia. rewrite app_nil_r, Hpre by lia. reflexivity.
  - replace (2 * S d + 1 + f) with (S (S (2 * d + 1 + f))) by lia.
    assert (L : forall k, base <= k -> lookupn (pre ++ diamonds (S d) base) k = lookupn (diamonds (S d) base) k)
      by (intros; apply lookup_app_none, Hpre; assumption).
    cbn [diamond_tree]. apply diamond_step with (e := base + 3); try lia.
    1-3: rewrite L by lia; cbn [diamonds lookup].
    + now rewrite Nat.eqb_refl.
    + rewrite (proj2 (Nat.eqb_neq (base + 1) base)) by lia. now rewrite Nat.eqb_refl.
    + rewrite (proj2 (Nat.eqb_neq (base + 2) base)), (proj2 (Nat.eqb_neq (base + 2) (base + 1))) by lia. now rewrite Nat.eqb_refl.
    + cbn [diamonds].
      change (pre ++ ?a :: ?b :: ?c :: ?m) with (pre ++ [a; b; c] ++ m). rewrite app_assoc. apply IH; [|lia].
      intros k Hk. rewrite lookup_app_none by (apply Hpre; lia). cbn [lookup].
      rewrite !(proj2 (Nat.eqb_neq k _)) by lia. reflexivity.
Qed.

Definition diamond_root (d : nat) : root nat :=
  let t := diamond_tree d 3 in StartNode nat 0 [Node nat 1 [t]; Node nat 2 [t]].

Lemma diamonds_root d f : root_for nat Nat.eqb (2 * d + 2 + f) (diamonds (S d) 0) 0 = Some (diamond_root d).
Proof.
  replace (2 * d + 2 + f) with (S (2 * d + 1 + f)) by lia.
  pose proof (diamonds_tree d 3 [(0, [1; 2]); (1, [3]); (2, [3])] f 0) as H.
  cbn [root_for diamonds Nat.add lookup Nat.eqb remove1 filter negb mapM spanning_tree].
  cbn [app] in H. rewrite H; [reflexivity| |lia].
  intros k Hk. do 3 (destruct k as [|k]; [lia|]). reflexivity.
Qed.

Lemma diamonds_count_root d f :
  List.length (all_targets nat (diamonds (S d) 0)) + 2 = 2 * d + 2 + f ->
  diamonds_count (S d) =
  let A := diamonds (S d) 0 in
  match forest_loop nat Nat.eqb (2 * d + 2 + f) (map fst (tl A)) (delete_targets nat Nat.eqb (visited_by nat (diamond_root d)) A) with
  | Some rs => Some (N.of_nat (List.length (flat_map (root_moves nat) (diamond_root d :: rs))),
                     N.of_nat (List.length (all_targets nat A)), N.of_nat (List.length A))
  | None => None
  end.
Proof.
  intros E. unfold diamonds_count, spanning_forest. rewrite E.
  change (map fst (diamonds (S d) 0)) with (0 :: map fst (tl (diamonds (S d) 0))).
  cbn [forest_loop]. rewrite diamonds_root. destruct (forest_loop _ _ _ _ _); reflexivity.
Qed.

(* diamonds_count (S d) runs with fuel 4 (d + 1) + 2 = 2 d + 2 + f, f = 2 d + 4: (d, f) = (7, 18) and (11, 26) *)
Lemma diamonds_count_8_12 : diamonds_count 8 = Some (1020, 32, 24)%N /\ diamonds_count 12 = Some (16380, 48, 36)%N.
Proof.
  split.
  - rewrite (diamonds_count_root 7 18) by reflexivity. vm_compute. reflexivity.
  - rewrite (diamonds_count_root 11 26) by reflexivity. vm_compute. reflexivity.
Qed.
