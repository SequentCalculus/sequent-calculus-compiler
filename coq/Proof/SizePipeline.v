(* C19: the composition of the stage bounds.  For a Fun program p (W = weighted size f_wprog p,
   V = fun_occ p distinct typed occurrences per definition, X / A from its type declarations):
     core       c_wprog   <= W * (12 + 3 V)
     focused    fs_wprog  <= 4 * that                                           =: w
     shrunk     ax_size   <= w * ((2 + X (2 + A)) + 2 (1 + X) w)                =: S
     linearized ax_size   <= S * (5 + 3 S)          (width <= size)             =: L
     x86-64     instructions <= 30 + x86_K * L * (5 + 4 S)   (largest context of the linearized program
                                                             <= 2 x size BEFORE linearization, SizeLinWidth.v)
   Shrinking and linearization are bounded quadratically in their input because the PROVED stage bounds
   are of the form size x (1 + width) and the only width estimate available without a scoping invariant
   is width <= size; hence degree 4 in W * (4 + V) for the linearized program and 6 for the instruction
   count (w^2 for S, S^2 for L, L * S for the code). *)
From Coq Require Import String List ZArith NArith Bool Lia.
From SCC Require Import Base.Sexp Lang.SynUtil Lang.FunSyn Lang.CoreSyn Lang.AxSyn Lang.AxSize Lang.FsSize Lang.CoreSize
     Model.Fun2Core Model.Uniquify Model.Focus Model.Shrink Model.SizeDefs Model.Linearize Model.LinCheck Model.Backend Model.X86
     Model.SizeFun Model.SizeWf
     Proof.LinBasics Proof.SizeLin Proof.SizeCodegen Proof.SizeShrink Proof.SizeFocus Proof.SizeGen Proof.SizeUniquify
     Proof.SizeFun2CoreProg Proof.SizeCodegenWf Proof.SizeX86 Proof.LinearizeProof Proof.SizeLinWidth.
Import ListNotations.
Open Scope list_scope.
Open Scope N_scope.
Local Arguments N.add : simpl never.
Local Arguments N.mul : simpl never.
Local Arguments N.sub : simpl never.
Local Arguments len : simpl never.

Lemma ax_nbind_le : forall s, ax_nbind s <= ax_size s.
Proof.
  induction s using stmt_ind2; try (cbn [ax_nbind ax_size]; lia).
  1: rewrite ax_nbind_switch, ax_size_switch. 2: rewrite ax_nbind_create, ax_size_create.
  (* Switch and Create alike: the clauses *)
  all: assert (ax_nbind_cls cls <= ax_size_cls cls); [|lia].
  all: induction H as [|[[x cx] b] r Hb Hr IH]; cbn [ax_nbind_cls ax_size_cls]; [lia|]. all: unfold cl_body in Hb; cbn [snd] in Hb; lia.
Qed.
Lemma ax_width_le : forall p, ax_width_prog p <= ax_size_prog p.
Proof.
  intros p. unfold ax_width_prog, ax_size_prog. induction (pdefs p) as [|d r IH]; cbn [ax_width_defs ax_size_defs]; [lia|].
  unfold ax_width_def, ax_size_def. pose proof (ax_nbind_le (dbody d)). lia.
Qed.

Lemma b_cg_super : forall a b, b_cg a + b_cg b <= b_cg (a + b).
Proof. intros. unfold b_cg. nia. Qed.
Lemma b_cg_mono : forall a b, a <= b -> b_cg a <= b_cg b.
Proof. intros a b H. unfold b_cg. apply N.mul_le_mono; [exact H|]. lia. Qed.
Lemma cg_bound_defs_le : forall ds, cg_bound_defs ds <= b_cg (ax_size_defs ds).
Proof.
  induction ds as [|d r IH]; cbn [cg_bound_defs ax_size_defs]; [unfold b_cg; lia|].
  eapply N.le_trans; [|apply b_cg_super]. apply N.add_le_mono; [|exact IH].
  pose proof (cg_bound_poly (dbody d) (len (dctx d))) as P. unfold cg_unit in P.
  pose proof (ax_maxw_le (dbody d) (len (dctx d))) as M.
  assert (Q : ax_size (dbody d) * (5 + 2 * ax_maxw (dbody d) (len (dctx d)))
              <= ax_size (dbody d) * (5 + 2 * (len (dctx d) + ax_size (dbody d)))) by (apply N.mul_le_mono_l; lia).
  unfold ax_size_def, b_cg. set (sz := ax_size (dbody d)) in *. set (n := len (dctx d)) in *.
  assert (R : cg_bound (dbody d) n <= sz * (5 + 2 * (n + sz))) by lia.
  clear P Q M IH. generalize dependent (cg_bound (dbody d) n). intros cgb R.
  replace ((1 + n + sz) * (5 + 2 * (1 + n + sz))) with (7 + 2 * n + 2 * sz + n * (7 + 2 * n + 2 * sz) + (sz * (5 + 2 * (n + sz)) + 2 * sz)) by lia.
  lia.
Qed.

Lemma b_shrunk_mono : forall w w' X A, w <= w' -> b_shrunk w X A <= b_shrunk w' X A.
Proof. intros w w' X A H. unfold b_shrunk. apply N.mul_le_mono; [exact H|]. apply N.add_le_mono_l. apply N.mul_le_mono_l. exact H. Qed.
Lemma b_linearized_mono : forall a b, a <= b -> b_linearized a <= b_linearized b.
Proof. intros a b H. unfold b_linearized. apply N.mul_le_mono; [exact H|]. lia. Qed.

Lemma focus_decls : forall p c q, compile_prog p = Fun2Core.Ok c -> focus_prog c = Ok q ->
  fspdata q = map compile_data (fcpdata p) /\ fspcodata q = map compile_codata (fcpcodata p).
Proof.
  intros p c q H1 H2. unfold compile_prog, compile_prog_gen in H1.
  destruct (compile_defs false _ (fcpdefs p) _ _ [] []) as [defs|e]; [|discriminate]. cbn [Fun2Core.rbind] in H1.
  inversion H1; subst; clear H1.
  unfold focus_prog, uniquify_prog in H2. cbn [cpdefs cpmax cpdata cpcodata] in H2.
  destruct (maprs uq_def defs 0) as [[ds m]|e]; [|discriminate]. cbn [rbind cpdefs cpmax cpdata cpcodata] in H2.
  destruct (maprs focus_def ds m) as [[ds' m']|e]; [|discriminate]. cbn [rbind] in H2. inversion H2; subst. split; reflexivity.
Qed.

Theorem pipeline_shrunk_size : forall p c q s,
  compile_prog p = Fun2Core.Ok c -> focus_prog c = Ok q -> shrink_prog q = SOk s ->
  ax_size_prog s <= pipeline_shrunk_bound p.
Proof.
  intros p c q s H1 H2 H3.
  pose proof (fun2core_size_weighted p c H1) as B1.
  pose proof (focus_prog_size_lemma c q H2) as B2.
  pose proof (shrink_size_lemma q s H3) as B3.
  destruct (focus_decls p c q H1 H2) as [D1 D2].
  assert (EX : prog_X q = fun_X p) by (unfold prog_X, fun_X; rewrite D1, D2; reflexivity).
  assert (EA : prog_A q = fun_A p) by (unfold prog_A, fun_A; rewrite D1, D2; reflexivity).
  rewrite EX, EA in B3. fold (b_shrunk (fs_wprog q) (fun_X p) (fun_A p)) in B3.
  assert (W : fs_wprog q <= b_focused (f_wprog p) (fun_occ p)) by (unfold b_focused; lia).
  pose proof (b_shrunk_mono _ _ (fun_X p) (fun_A p) W) as M3.
  unfold pipeline_shrunk_bound. lia.
Qed.

Theorem pipeline_ax_size : forall p c q s,
  compile_prog p = Fun2Core.Ok c -> focus_prog c = Ok q -> shrink_prog q = SOk s ->
  ax_size_prog (linearize s) <= pipeline_ax_bound p.
Proof.
  intros p c q s H1 H2 H3.
  pose proof (pipeline_shrunk_size p c q s H1 H2 H3) as BS.
  pose proof (linearize_size_poly_lemma s) as B4.
  pose proof (ax_width_le s) as BW.
  unfold pipeline_ax_bound. eapply N.le_trans; [|apply b_linearized_mono; exact BS].
  unfold b_linearized. nia.
Qed.

Definition pipeline_x86_bound (p : fcprog) : N := 30 + x86_K * pipeline_cg_bound p.

Lemma pipeline_cg : forall p c q s,
  compile_prog p = Fun2Core.Ok c -> focus_prog c = Ok q -> shrink_prog q = SOk s ->
  cg_bound_defs (pdefs (linearize s)) <= pipeline_cg_bound p.
Proof.
  intros p c q s H1 H2 H3.
  pose proof (pipeline_ax_size p c q s H1 H2 H3) as B.
  pose proof (pipeline_shrunk_size p c q s H1 H2 H3) as BS.
  pose proof (cg_bound_linearize s) as G.
  unfold pipeline_cg_bound. eapply N.le_trans; [exact G|]. apply N.mul_le_mono; [exact B|lia].
Qed.

Theorem pipeline_x86_size : forall p c q s lc r n lc',
  compile_prog p = Fun2Core.Ok c -> focus_prog c = Ok q -> shrink_prog q = SOk s ->
  sub_wf_prog (linearize s) = true ->
  x86_compile (linearize s) lc = Ok (r, n, lc') ->
  len r <= pipeline_x86_bound p.
Proof.
  intros p c q s lc r n lc' H1 H2 H3 HW H5.
  pose proof (pipeline_cg p c q s H1 H2 H3) as G.
  pose proof (x86_compile_size _ _ _ _ _ HW H5) as C. unfold x86_bound, x86_routine_overhead in C.
  unfold pipeline_x86_bound.
  assert (x86_K * cg_bound_defs (pdefs (linearize s)) <= x86_K * pipeline_cg_bound p) by (apply N.mul_le_mono_l; exact G).
  lia.
Qed.

(* the closed forms: with w = 12 W (4 + V) and d = 4 + X (4 + A):
   shrunk <= d w^2, linearized <= 8 (d w^2)^2, code-generation units <= 72 (d w^2)^3 *)
Definition pl_w (p : fcprog) : N := 12 * (f_wprog p * (4 + fun_occ p)).
Definition pl_d (p : fcprog) : N := 4 + fun_X p * (4 + fun_A p).
Lemma pipeline_shrunk_closed : forall p, pipeline_shrunk_bound p <= pl_d p * pl_w p ^ 2.
Proof.
  intros p. unfold pipeline_shrunk_bound, b_shrunk, b_focused, pl_d, pl_w.
  set (W := f_wprog p). set (V := fun_occ p). set (X := fun_X p). set (A := fun_A p).
  set (w := 4 * (W * (12 + 3 * V))). assert (Ew : w = 12 * (W * (4 + V))) by (unfold w; lia). rewrite <- Ew.
  rewrite N.pow_2_r. destruct (N.eq_dec w 0) as [->|Hw]; [lia|]. nia.
Qed.
Lemma pipeline_ax_closed : forall p, pipeline_ax_bound p <= 8 * (pl_d p * pl_w p ^ 2) ^ 2.
Proof.
  intros p. unfold pipeline_ax_bound, b_linearized. pose proof (pipeline_shrunk_closed p) as S.
  set (Sv := pipeline_shrunk_bound p) in *. set (t := pl_d p * pl_w p ^ 2) in *.
  rewrite N.pow_2_r. destruct (N.eq_dec Sv 0) as [->|Hs]; [lia|]. nia.
Qed.
Lemma pipeline_cg_closed : forall p, pipeline_cg_bound p <= 72 * (pl_d p * pl_w p ^ 2) ^ 3.
Proof.
  intros p. unfold pipeline_cg_bound. pose proof (pipeline_shrunk_closed p) as S. pose proof (pipeline_ax_closed p) as L.
  set (Sv := pipeline_shrunk_bound p) in *. set (Lv := pipeline_ax_bound p) in *. set (t := pl_d p * pl_w p ^ 2) in *.
  assert (E : t ^ 3 = t ^ 2 * t) by (rewrite !N.pow_succ_r', N.pow_0_r || (change 3 with (N.succ 2); rewrite N.pow_succ_r'; lia); lia).
  rewrite E. destruct (N.eq_dec t 0) as [Ht|Ht].
  - rewrite Ht in *. assert (Sv = 0) by lia. assert (Lv = 0) by (rewrite N.pow_2_r in L; lia). subst. lia.
  - assert (Lv * (5 + 4 * Sv) <= (8 * t ^ 2) * (9 * t)); [|lia].
    apply N.mul_le_mono; [exact L|]. lia.
Qed.

Theorem pipeline_x86_size_ok : forall p c q s lc r n lc',
  compile_prog p = Fun2Core.Ok c -> focus_prog c = Ok q -> shrink_prog q = SOk s ->
  lin_check_prog (linearize s) = true ->
  x86_compile (linearize s) lc = Ok (r, n, lc') ->
  len r <= pipeline_x86_bound p.
Proof.
  intros p c q s lc r n lc' H1 H2 H3 HL. apply (pipeline_x86_size p c q s lc r n lc' H1 H2 H3). apply lin_check_prog_sub_wf. exact HL.
Qed.

(* the guard discharged by C05 when the shrunk program is well typed with unique binders (prog_ok) *)
Theorem pipeline_x86_size_prog_ok : forall p c q s lc r n lc',
  compile_prog p = Fun2Core.Ok c -> focus_prog c = Ok q -> shrink_prog q = SOk s ->
  prog_ok s = true ->
  x86_compile (linearize s) lc = Ok (r, n, lc') ->
  len r <= pipeline_x86_bound p.
Proof.
  intros p c q s lc r n lc' H1 H2 H3 HP. apply (pipeline_x86_size_ok p c q s lc r n lc' H1 H2 H3). apply linearize_exact. exact HP.
Qed.

(* the whole pipeline as one computation, for the evaluated example of Props/C19.v:
   (size, weighted size, occurrences, X, A of the source; sizes of core (nodes, weighted), focused, shrunk,
   linearized; the two proved fun2core bounds; cg_bound, instructions, prog_ok of the shrunk program,
   lin_check and sub_wf of the linearized one; pipeline_ax_bound, pipeline_x86_bound, x86_bound) *)
Definition pipeline_run (p : fcprog) :=
  match compile_prog p with
  | Fun2Core.Ok c =>
    match focus_prog c with
    | Ok q =>
      match shrink_prog q with
      | SOk s =>
         let l := linearize s in
         match x86_compile l 0 with
         | Ok (r, _, _) =>
             Some (size_fcprog p, f_wprog p, fun_occ p, fun_X p, fun_A p,
                   (size_cprog c, c_wprog c, fs_wprog q, ax_size_prog s, ax_size_prog l),
                   (f2c_bound_nodes p, f2c_bound_weighted p),
                   (cg_bound_defs (pdefs l), len r, prog_ok s, lin_check_prog l, sub_wf_prog l),
                   (pipeline_ax_bound p, pipeline_x86_bound p, x86_bound l))
         | Err _ => None
         end
      | SErr _ => None
      end
    | Err _ => None
    end
  | Fun2Core.Err _ => None
  end.
