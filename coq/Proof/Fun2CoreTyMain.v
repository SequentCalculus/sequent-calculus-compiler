(* Proof/Fun2CoreTyMain  -  the translation of a guarded term is well typed.
   [TW t]: for every scope G in which the guard [tg] holds of t, every continuation cont that is a
   consumer of the type of t in G and stays one under the binders of t (invariant [KT]; the guard needs no capture clause:
   the translation keeps a continuation outside of binders whose names it mentions), the statement
   wc t cont  is typed in G; the typed free variables of the output have declared types and every definition
   lifted on the way (`share`) is well typed.
   [TC t]: the same for  cmp t ty  (a producer of the type of t).
   Each term form is proved for the method it implements ([wc_cmp_ind] of Proof/Fun2CoreProof.v); the nested
   traversals (arguments, clauses, coclauses) have lemmas of their own. *)
From Coq Require Import List ZArith NArith String Bool Lia.
From SCC Require Import Proof.CoreInd.
From SCC Require Import Base.Sexp Lang.SynUtil Lang.FunSyn Lang.FunTy Lang.CoreSyn.
From SCC Require Import Sem.AxSem Sem.FunSem Sem.FsCheck Sem.CoreCheck Model.Fun2Core Model.Fun2CoreGuard Model.Fun2CoreTyGuard.
From SCC Require Import Proof.Fun2CoreProof Proof.Fun2CoreTfv Proof.Fun2CoreInv Proof.CoreTyRules Proof.CoreTyFv
     Proof.Fun2CoreTyBase Proof.Fun2CoreTyShare.
Import ListNotations.
Open Scope string_scope.
Open Scope list_scope.

Arguments var_ok : simpl never.

Lemma incl_app_l : forall (X : Type) (a b c : list X), incl (a ++ b) c -> incl a c.
Proof. intros X a b c H x Hx. apply H. apply in_or_app. left. exact Hx. Qed.
Lemma incl_app_r : forall (X : Type) (a b c : list X), incl (a ++ b) c -> incl b c.
Proof. intros X a b c H x Hx. apply H. apply in_or_app. right. exact Hx. Qed.
Lemma incl_cons_r : forall (X : Type) (a : X) (b c : list X), incl (a :: b) c -> incl b c.
Proof. intros X a b c H x Hx. apply H. right. exact Hx. Qed.

Section Main.
  Variable p : fcprog.
  Variable defs : list cdef.
  Variable cur : string.
  Variable U : list string.
  Notation D := (cdata_of p).
  Notation C := (ccodata_of p).
  Notation cd := (f_is_codata p).
  Notation wc' := (wc C cur false).
  Notation cmp' := (cmp C cur false).
  Notation ct := (ccheck_term D C defs).
  Notation cs := (ccheck_stmt D C defs).
  Notation tg := (tg p D C).
  Notation tg_arg := (tg_arg p D C).
  Notation tg_args := (tg_args p D C).
  Notation tg_clause := (tg_clause p D C).
  Notation tg_clauses := (tg_clauses p D C).
  Notation tg_coclause := (tg_coclause p D C).
  Notation tg_coclauses := (tg_coclauses p D C).
  Notation tyd := (tyd D C).
  Notation ann_ok := (ann_ok D C).
  Notation KT := (KT D C defs U).
  Notation agree := (agree U).
  Notation gen := (gen U).
  Notation tyd_fv := (tyd_fv D C).
  Notation def_typed := (def_typed D C defs).
  Notation Hfind := (Hfind defs).
  Notation args_typed := (args_typed D C defs).
  Notation clause_typed := (clause_typed D C defs).

  (* every definition other than main - and main too when it is called - has its Core form, with the return continuation as last parameter *)
  Hypothesis Hcallee : forall f d, ffind_def p f = Some d -> (f <> "main" \/ calls_main_prog p = true) ->
    exists a body, find (fun d' => cident_eqb (cdname d') (new_id f)) defs =
                   Some (mkcd (new_id f) (compile_ctx (fdctx d) ++ [mkcb (new_id a) CCns (compile_ty (fdret d))]) body).

  Definition lifted_ok (st st' : cstate) : Prop :=
    Forall def_typed (st_lifted st) -> Forall def_typed (st_lifted st').

  Definition TW (t : fterm) : Prop :=
    forall G S cont ty st s st',
      wc' t cont st = Ok (s, st') ->
      tg G t = true -> tyo t = Some ty -> tyd ty = true ->
      incl (fv_fterm t) (st_used_vars st) -> incl (bnd t) U -> incl S (st_used_vars st) -> incl U (st_used_vars st) ->
      KT cont ty G st S -> Hfind (st_lifted st') ->
      cs G s = None /\ (tyd_fv (fvt cont) -> tyd_fv (fvs s) /\ lifted_ok st st').
  Definition TC (t : fterm) : Prop :=
    forall G ty st c st',
      cmp' t ty st = Ok (c, st') ->
      tg G t = true -> tyo t = Some ty -> tyd ty = true ->
      incl (fv_fterm t) (st_used_vars st) -> incl (bnd t) U -> incl U (st_used_vars st) ->
      Hfind (st_lifted st') ->
      ct G CPrd ty c = None /\ tyd_fv (fvt c) /\ lifted_ok st st'.

  Lemma Hfind_grows : forall st st', grows st st' -> Hfind (st_lifted st') -> Hfind (st_lifted st).
  Proof. intros st st' Hg H d Hd. apply H. eapply grows_lifted_incl; eassumption. Qed.
  Lemma arg_grows : forall y st a st', compile_arg y (cmp' y) st = Ok (a, st') -> grows st st'.
  Proof.
    intros y st a st' H. eapply (mgrows_compile_arg y (cmp' y)); [|exact H].
    intros ty st0 x0 st0' H0. eapply cmp_grows. exact H0.
  Qed.
  Lemma lifted_ok_trans : forall a b c, lifted_ok a b -> lifted_ok b c -> lifted_ok a c.
  Proof. unfold lifted_ok. auto. Qed.
  Lemma lifted_ok_refl : forall a, lifted_ok a a.
  Proof. unfold lifted_ok. auto. Qed.
  Lemma lifted_ok_eq : forall a b, st_lifted b = st_lifted a -> lifted_ok a b.
  Proof. unfold lifted_ok. intros a b ->. auto. Qed.

  Lemma find_data_tyd : forall n d, find_decl D n = Some d -> tyd (CDecl n) = true.
  Proof. intros n d H. unfold Fun2CoreTyGuard.tyd, ty_ok. rewrite H. reflexivity. Qed.
  Lemma find_codata_tyd : forall n d, find_decl C n = Some d -> tyd (CDecl n) = true.
  Proof. intros n d H. unfold Fun2CoreTyGuard.tyd, ty_ok. rewrite H. destruct (find_decl D n); reflexivity. Qed.

  Lemma codata_eq : forall vty, ty_is_codata C (compile_ty vty) = cd vty.
  Proof. intros vty. exact (ty_is_codata_compile p vty). Qed.

  Lemma tyd_fv_var : forall c v ty, tyd ty = true -> tyd_fv (fvt (CXVar c v ty)).
  Proof. intros c v ty H b Hb. apply fvt_var in Hb. subst b. exact H. Qed.

  (* a typed producer cut against the continuation: from the conclusion of TC to that of TW *)
  Lemma cut_ok : forall G S c ty cont st0 st st',
    ct G CPrd ty c = None /\ tyd_fv (fvt c) /\ lifted_ok st st' -> tyd ty = true -> KT cont ty G st0 S ->
    cs G (CCut c ty cont) = None /\ (tyd_fv (fvt cont) -> tyd_fv (fvs (CCut c ty cont)) /\ lifted_ok st st').
  Proof.
    intros G S c ty cont st0 st st' [H1 [H2 H3]] Htd HK. split.
    - apply cs_cut. split; [exact Htd|]. split; [exact H1 | eapply KT_here; exact HK].
    - intros Hc. split; [|exact H3]. intros b Hb. apply fvs_cut in Hb. destruct Hb as [Hb|Hb]; [apply H2 | apply Hc]; exact Hb.
  Qed.

  (* ---------- naming the continuation: < mu a. w(a) | .. > for a fresh covariable a ----------
     [TWin t binders w]: the statement of TW for a translation w of t that is only used with continuations
     that mention none of [binders] (the check of the repaired translation [guard_capture] for let and case). *)
  Definition TWin (t : fterm) (binders : list fname) (w : cterm -> M cstmt) : Prop :=
    forall G S cont ty st s st',
      w cont st = Ok (s, st') -> captures binders cont = false ->
      tg G t = true -> tyo t = Some ty -> tyd ty = true ->
      incl (fv_fterm t) (st_used_vars st) -> incl (bnd t) U -> incl S (st_used_vars st) -> incl U (st_used_vars st) ->
      KT cont ty G st S -> Hfind (st_lifted st') ->
      cs G s = None /\ (tyd_fv (fvt cont) -> tyd_fv (fvs s) /\ lifted_ok st st').

  Lemma mu_fresh : forall t binders w, TWin t binders w ->
    forall G ty st a sta s st',
      fresh_covar st = Ok (a, sta) -> w (CXVar CCns (new_id a) ty) sta = Ok (s, st') ->
      captures binders (CXVar CCns (new_id a) ty) = false ->
      tg G t = true -> tyo t = Some ty -> tyd ty = true ->
      incl (fv_fterm t) (st_used_vars st) -> incl (bnd t) U -> incl U (st_used_vars st) ->
      Hfind (st_lifted st') ->
      ct G CPrd ty (CMu CPrd (new_id a) s ty) = None /\ tyd_fv (fvt (CMu CPrd (new_id a) s ty)) /\ lifted_ok st st'.
  Proof.
    intros t binders w Hin G ty st a sta s st' Ha Hs Hc Hg Hty Htd Hfv Hbd HU Hf.
    destruct (fresh_in_vars_inv _ _ _ _ Ha) as [Hfresh [Hused [_ Hlift]]].
    set (ab := mkcb (new_id a) CCns ty).
    assert (HnU : ~ In a U) by (intros Hi; apply Hfresh; apply HU; exact Hi).
    assert (Hgen : gen sta a) by (split; [rewrite Hused; left; reflexivity | exact HnU]).
    destruct (Hin (ab :: G) [] (CXVar CCns (new_id a) ty) ty sta s st' Hs Hc) as [H1 H2]; auto.
    - rewrite <- Hg. apply tg_ext. intros x Hx. rewrite clookup_cons. cbn [cbvar ab].
      assert (Hne : a <> x) by (intros ->; apply Hfresh; apply Hfv; exact Hx).
      rewrite (new_id_neq _ _ Hne). reflexivity.
    - rewrite Hused. apply incl_tl. exact Hfv.
    - intros x [].
    - rewrite Hused. apply incl_tl. exact HU.
    - intros G' Hag. apply ct_var. repeat split. rewrite (Hag a (or_intror Hgen)).
      rewrite clookup_cons. cbn [cbvar ab]. rewrite cident_eqb_refl. reflexivity.
    - destruct (H2 (tyd_fv_var _ _ _ Htd)) as [H3 H4]. split; [|split].
      + apply ct_mu. repeat split. exact H1.
      + intros b Hb. apply fvt_mu_1 in Hb. apply H3. exact Hb.
      + intros Hall. apply H4. rewrite Hlift. exact Hall.
  Qed.

  (* the two hypotheses of [wc_cmp_ind]: a form that implements compile_with_cont takes the default `compile`
     (a fresh covariable, then compile_with_cont); a form that implements `compile` cuts its result against the continuation *)
  Lemma tc_stmt : forall t, stmt_form t = true -> TW t -> TC t.
  Proof.
    intros t Hs HT G ty st c st' H Hg Hty Htd Hfv Hbd HU Hf. rewrite (cmp_stmt_form _ _ _ _ _ Hs) in H.
    apply default_compile_inv in H. destruct H as [a [sta [s [Ha [Hs' ->]]]]].
    apply (mu_fresh t [] (wc' t)) with (sta := sta); auto.
    intros G0 S cont ty0 st0 s0 st0' H0 _. exact (HT G0 S cont ty0 st0 s0 st0' H0).
  Qed.
  Lemma tw_value : forall t, value_form t = true -> TC t -> TW t.
  Proof.
    intros t Hv HC G S cont ty st s st' H Hg Hty Htd Hfv Hbd HS HU HK Hf.
    destruct (wc_value_form _ _ _ _ _ _ _ _ Hv H) as [c [Hc ->]].
    pose proof (HC G ty st c st' (Hc ty) Hg Hty Htd Hfv Hbd HU Hf) as R.
    rewrite (ct_type D C defs G CPrd ty c (proj1 R)). exact (cut_ok _ _ _ _ _ _ _ _ R Htd HK).
  Qed.

  Lemma tw_args : forall args, Forall TC args ->
    forall G sig st l st',
      subst_with (fun y => cmp' y) args st = Ok (l, st') ->
      tg_args G args sig = true ->
      incl (flat_map fv_fterm args) (st_used_vars st) -> incl (flat_map bnd args) U -> incl U (st_used_vars st) ->
      Hfind (st_lifted st') ->
      args_typed G l sig /\ tyd_fv (fva l) /\ lifted_ok st st'.
  Proof.
    intros args H G. induction H as [|y r Hy Hr IH]; intros sig st l st' Hs Hg Hfv Hbd HU Hf.
    - simpl in Hs. apply mret_inv in Hs. destruct Hs; subst. destruct sig; [|discriminate].
      split; [constructor|]. split; [intros b Hb'; apply fva_nil in Hb'; contradiction | apply lifted_ok_refl].
    - destruct sig as [|b sr]; [discriminate|]. rewrite tg_args_cons in Hg. apply andb_prop in Hg. destruct Hg as [Hg1 Hg2].
      apply subst_with_cons_inv in Hs. destruct Hs as [a [st1 [rest [Ha [Hrest Hl]]]]]. subst l.
      simpl in Hfv, Hbd.
      assert (Hgr1 : grows st st1) by (eapply arg_grows; exact Ha).
      assert (Hgr2 : grows st1 st') by (eapply subst_with_grows; exact Hrest).
      destruct (IH sr st1 rest st' Hrest Hg2) as [I1 [I2 I3]]; auto.
      { eapply incl_tran; [exact (incl_app_r _ _ _ _ Hfv) | apply grows_vars_incl; exact Hgr1]. }
      { exact (incl_app_r _ _ _ _ Hbd). }
      { eapply incl_tran; [exact HU | apply grows_vars_incl; exact Hgr1]. }
      apply compile_arg_inv in Ha.
      destruct Ha as [[v [ty [ty0 [Ey [Ety [Ea Est]]]]]]|[Hn [ty0 [c [Ety [Ec Ea]]]]]].
      + subst y ty a st1. unfold Fun2CoreTyGuard.tg_arg in Hg1. destruct (cbchi b) eqn:Eb; [discriminate|].
        apply andb_prop in Hg1 as [[Hv Hh]%andb_prop Htd].
        apply var_ok_look in Hv. destruct Hv as [ty1 [E1 Hv]]. injection E1 as <-.
        apply has_ty_tyo in Hh. unfold tyo in Hh. simpl in Hh. injection Hh as Hh.
        split; [|split; [|exact I3]].
        * constructor; [|exact I1]. unfold arg_typed. rewrite Eb. apply ct_var. rewrite <- Hh. repeat split. exact Hv.
        * intros bb Hbb. apply fva_cons in Hbb. destruct Hbb as [Hbb|Hbb]; [|apply I2; exact Hbb].
          apply fvt_var in Hbb. subst bb. cbn [cbty]. rewrite Hh. exact Htd.
      + subst a. unfold Fun2CoreTyGuard.tg_arg in Hg1. destruct (cbchi b) eqn:Eb.
        * apply andb_prop in Hg1 as [[[_ Hgy]%andb_prop Hh]%andb_prop Htd].
          apply has_ty_tyo in Hh. assert (Ec' : compile_ty ty0 = cbty b).
          { unfold tyo in Hh. rewrite Ety in Hh. simpl in Hh. injection Hh as Hh. exact Hh. }
          rewrite Ec' in Ec.
          destruct (Hy G (cbty b) st c st1 Ec Hgy Hh Htd) as [J1 [J2 J3]]; auto.
          { exact (incl_app_l _ _ _ _ Hfv). }
          { exact (incl_app_l _ _ _ _ Hbd). }
          { eapply Hfind_grows; eassumption. }
          split; [|split].
          -- constructor; [|exact I1]. unfold arg_typed. rewrite Eb. exact J1.
          -- intros bb Hbb. apply fva_cons in Hbb. destruct Hbb as [Hbb|Hbb]; [apply J2 | apply I2]; exact Hbb.
          -- eapply lifted_ok_trans; eassumption.
        * exfalso. destruct y; try discriminate. destruct chi as [[|]|]; try discriminate. contradiction.
  Qed.

  Lemma compile_ctx_binder : forall ctx b, In b (compile_ctx ctx) -> exists v, cbvar b = new_id v /\ In v (fvars ctx).
  Proof.
    intros ctx b H. unfold compile_ctx in H. apply in_map_iff in H. destruct H as [fb [<- Hfb]].
    exists (fbvar fb). split; [reflexivity | apply in_map; exact Hfb].
  Qed.

  (* a scope extended by clause parameters that are user names and not free in the continuation *)
  Lemma agree_ctx : forall st S ctx G, (forall v, In v (fvars ctx) -> ~ In v S) -> incl (fvars ctx) U ->
    agree st S (compile_ctx ctx ++ G) G.
  Proof.
    intros st S ctx G Hs Hu. apply agree_app. intros b Hb. destruct (compile_ctx_binder _ _ Hb) as [v [E Hv]].
    exists v. split; [exact E|]. split; [apply Hs; exact Hv|]. intros [_ Hn]. apply Hn. apply Hu. exact Hv.
  Qed.

  Lemma tw_clauses : forall cls, Forall (fun c => TW (clause_body c)) cls ->
    forall G S cont1 ty0 n xs st l st',
      clauses_with (fun b => wc' b) cont1 cls st = Ok (l, st') ->
      tg_clauses G (Some ty0) cls xs = true -> tyd (compile_ty ty0) = true ->
      captures (flat_map cl_names cls) cont1 = false ->
      incl (flat_map fv_cl cls) (st_used_vars st) -> incl (flat_map cl_bnd cls) U ->
      incl S (st_used_vars st) -> incl U (st_used_vars st) ->
      KT cont1 (compile_ty ty0) G st S -> Hfind (st_lifted st') ->
      cclauses_match CCns n l xs = None /\
      (forall G2 stf, incl (st_used_vars st') (st_used_vars stf) -> agree stf (flat_map (cont_cl S) cls) G2 G ->
                      Forall (clause_typed G2) l) /\
      (tyd_fv (fvt cont1) -> tyd_fv (fvc l) /\ lifted_ok st st').
  Proof.
    intros cls H G S cont1 ty0 n. induction H as [|c r Hc Hr IH]; intros xs st l st' Hs Hg Htd Hrk Hfv Hbd HS HU HK Hf.
    - simpl in Hs. apply mret_inv in Hs. destruct Hs; subst. destruct xs; [|discriminate].
      split; [reflexivity|]. split; [intros; constructor|]. intros _.
      split; [intros b Hb'; apply fvc_nil in Hb'; contradiction | apply lifted_ok_refl].
    - destruct xs as [|sg xr]; [discriminate|]. rewrite tg_clauses_cons in Hg. apply andb_prop in Hg. destruct Hg as [Hg1 Hg2].
      destruct c as [pl x names ctx body]. apply clauses_with_cons_inv in Hs.
      destruct Hs as [c' [st1 [rest [Ha [Hrest Hl]]]]]. subst l.
      apply compile_clause_inv in Ha. destruct Ha as [body' [Hbody Ec]]. subst c'.
      unfold Fun2CoreTyGuard.tg_clause in Hg1.
      apply andb_prop in Hg1 as [[[[[Hnames Hid]%andb_prop Hpar]%andb_prop Hnd]%andb_prop Hgb]%andb_prop Hsame].
      assert (Hrk1 : captures (fvars ctx) cont1 = false).
      { eapply captures_incl; [exact Hrk|]. intros z Hz. simpl. apply in_or_app. left. exact Hz. }
      assert (Hrk2 : captures (flat_map cl_names r) cont1 = false).
      { eapply captures_incl; [exact Hrk|]. intros z Hz. simpl. apply in_or_app. right. exact Hz. }
      simpl in Hfv, Hbd. simpl in Hc.
      assert (Hgr1 : grows st st1) by (eapply wc_grows; exact Hbody).
      assert (Hgr2 : grows st1 st') by (eapply clauses_with_grows; exact Hrest).
      assert (HctxU : incl (fvars ctx) U) by (intros z Hz; apply Hbd; apply in_or_app; left; apply in_or_app; left; exact Hz).
      assert (Hfvb : incl (fv_fterm body) (st_used_vars st)).
      { intros z Hz. destruct (in_dec string_dec z (fvars ctx)) as [Hi|Hi]; [apply HU; apply HctxU; exact Hi|].
        apply Hfv. apply in_or_app. left. apply remove_all_In. split; assumption. }
      destruct (IH xr st1 rest st' Hrest Hg2 Htd Hrk2) as [I1 [I2 I3]]; auto.
      { eapply incl_tran; [exact (incl_app_r _ _ _ _ Hfv) | apply grows_vars_incl; exact Hgr1]. }
      { exact (incl_app_r _ _ _ _ Hbd). }
      { eapply incl_tran; [exact HS | apply grows_vars_incl; exact Hgr1]. }
      { eapply incl_tran; [exact HU | apply grows_vars_incl; exact Hgr1]. }
      { eapply KT_mono; [exact HK | apply grows_vars_incl; exact Hgr1 | apply incl_refl]. }
      apply has_ty_tyo in Hsame.
      assert (Hhead : forall G2 stf, incl (st_used_vars st1) (st_used_vars stf) ->
                agree stf (cont_cl S (FClause pl x names ctx body)) G2 G ->
                cs (compile_ctx ctx ++ G2) body' = None /\
                (tyd_fv (fvt cont1) -> tyd_fv (fvs body') /\ lifted_ok st st1)).
      { intros G2 stf Hstf Hag.
        apply (Hc (compile_ctx ctx ++ G2) S cont1 (compile_ty ty0) st body' st1 Hbody); auto.
        - rewrite <- Hgb. apply tg_ext. apply same_on_app; [|apply compile_ctx_ids]. rewrite compile_ctx_names.
          intros z Hz. apply Hag. left. unfold cont_cl. apply remove_all_In. apply remove_all_In in Hz.
          destruct Hz as [Hz1 Hz2]. split; [apply in_or_app; left; exact Hz1 | exact Hz2].
        - intros z Hz. apply Hbd. apply in_or_app. left. apply in_or_app. right. exact Hz.
        - apply (KT_rebind D C defs U cont1 _ G _ st S (fvars ctx) HK Hrk1).
          intros y Hy Hny. rewrite clookup_app.
          rewrite (clookup_compile_ctx_none _ _ Hny). apply Hag. destruct Hy as [Hy|[Hy1 Hy2]].
          + left. unfold cont_cl. apply remove_all_In. split; [apply in_or_app; right; exact Hy | exact Hny].
          + right. split; [apply Hstf; apply (grows_vars_incl _ _ Hgr1); exact Hy1 | exact Hy2].
        - eapply Hfind_grows; eassumption. }
      split; [|split].
      + apply cclauses_match_cons.
        repeat split; [apply cident_eqb_eq; exact Hid | exact Hpar | apply compile_ctx_nodup; exact Hnd | exact I1].
      + intros G2 stf Hstf Hag. constructor.
        * unfold clause_typed. apply (Hhead G2 stf).
          -- eapply incl_tran; [apply grows_vars_incl; exact Hgr2 | exact Hstf].
          -- eapply agree_mono; [exact Hag | apply incl_refl |]. intros z Hz. simpl. apply in_or_app. left. exact Hz.
        * apply (I2 G2 stf Hstf). eapply agree_mono; [exact Hag | apply incl_refl |].
          intros z Hz. simpl. apply in_or_app. right. exact Hz.
      + intros Hcf. destruct (I3 Hcf) as [I4 I5].
        destruct (Hhead G st1 (incl_refl _) (agree_refl _ _ _ _)) as [_ Hh]. destruct (Hh Hcf) as [Hh1 Hh2].
        split; [|eapply lifted_ok_trans; eassumption].
        intros b Hb. apply fvc_cons_iff in Hb. destruct Hb as [[Hb _]|Hb]; [apply Hh1 | apply I4]; exact Hb.
  Qed.

  Lemma fparams_ok_snoc : forall a pre b last,
    fparams_ok a pre = true -> csame_sig b last = true -> fparams_ok (a ++ [b]) (pre ++ [last]) = true.
  Proof.
    induction a as [|x r IH]; intros [|y pre] b last H1 H2; simpl in *; try discriminate.
    - rewrite H2. reflexivity.
    - apply andb_prop in H1. destruct H1 as [H1 H3]. rewrite H1. simpl. apply IH; assumption.
  Qed.

  Lemma tw_coclauses : forall cls, Forall (fun c => TW (clause_body c)) cls ->
    forall G n xs st l st',
      coclauses_with (fun b => wc' b) cls st = Ok (l, st') ->
      tg_coclauses G cls xs = true ->
      incl (flat_map fv_cl cls) (st_used_vars st) -> incl (flat_map cl_bnd cls) U -> incl U (st_used_vars st) ->
      Hfind (st_lifted st') ->
      cclauses_match CPrd n l xs = None /\ Forall (clause_typed G) l /\ tyd_fv (fvc l) /\ lifted_ok st st'.
  Proof.
    intros cls H G n. induction H as [|c r Hc Hr IH]; intros xs st l st' Hs Hg Hfv Hbd HU Hf.
    - simpl in Hs. apply mret_inv in Hs. destruct Hs; subst. destruct xs; [|discriminate].
      split; [reflexivity|]. split; [constructor|].
      split; [intros b Hb'; apply fvc_nil in Hb'; contradiction | apply lifted_ok_refl].
    - destruct xs as [|sg xr]; [discriminate|]. rewrite tg_coclauses_cons in Hg. apply andb_prop in Hg. destruct Hg as [Hg1 Hg2].
      destruct c as [pl x names ctx body]. apply coclauses_with_cons_inv in Hs.
      destruct Hs as [c' [st1 [rest [Ha [Hrest Hl]]]]]. subst l.
      apply compile_coclause_inv in Ha. destruct Ha as [ty0 [a [sta [body' [Ety [Hfr [Hbody Ec]]]]]]]. subst c'.
      unfold Fun2CoreTyGuard.tg_coclause in Hg1.
      apply andb_prop in Hg1 as [[[[Hnames Hid]%andb_prop Hsig]%andb_prop Hnd]%andb_prop Hgb].
      destruct (split_last (cxargs sg)) as [[pre last]|] eqn:Esl; [|discriminate].
      apply split_last_spec in Esl.
      apply andb_prop in Hsig as [[[Hpar Hchi]%andb_prop Hhas]%andb_prop Htdl]. apply ceq_chi in Hchi.
      apply has_ty_tyo in Hhas.
      assert (Ety' : compile_ty ty0 = cbty last).
      { unfold tyo in Hhas. rewrite Ety in Hhas. simpl in Hhas. injection Hhas as Hhas. exact Hhas. }
      simpl in Hfv, Hbd. simpl in Hc.
      destruct (fresh_in_vars_inv _ _ _ _ Hfr) as [Hfresh [Hused [_ Hlift]]].
      assert (Hgra : incl (st_used_vars st) (st_used_vars sta)) by (rewrite Hused; apply incl_tl; apply incl_refl).
      assert (Hgr1 : grows sta st1) by (eapply wc_grows; exact Hbody).
      assert (Hgr2 : grows st1 st') by (eapply coclauses_with_grows; exact Hrest).
      assert (HctxU : incl (fvars ctx) U) by (intros z Hz; apply Hbd; apply in_or_app; left; apply in_or_app; left; exact Hz).
      assert (Hfvb : incl (fv_fterm body) (st_used_vars st)).
      { intros z Hz. destruct (in_dec string_dec z (fvars ctx)) as [Hi|Hi]; [apply HU; apply HctxU; exact Hi|].
        apply Hfv. apply in_or_app. left. apply remove_all_In. split; assumption. }
      assert (HnU : ~ In a U) by (intros Hin; apply Hfresh; apply HU; exact Hin).
      assert (Hnctx : ~ In a (fvars ctx)) by (intros Hin; apply HnU; apply HctxU; exact Hin).
      set (ab := mkcb (new_id a) CCns (compile_ty ty0)).
      assert (Hla : clookup ((compile_ctx ctx ++ [ab]) ++ G) (new_id a) = Some ab).
      { rewrite <- app_assoc, clookup_app.
        rewrite (clookup_compile_ctx_none _ _ Hnctx). simpl. cbn [cbvar ab]. rewrite cident_eqb_refl. reflexivity. }
      destruct (IH xr st1 rest st' Hrest Hg2) as [I1 [I2 [I3 I4]]]; auto.
      { eapply incl_tran; [exact (incl_app_r _ _ _ _ Hfv)|]. eapply incl_tran; [exact Hgra | apply grows_vars_incl; exact Hgr1]. }
      { exact (incl_app_r _ _ _ _ Hbd). }
      { eapply incl_tran; [exact HU|]. eapply incl_tran; [exact Hgra | apply grows_vars_incl; exact Hgr1]. }
      rewrite Ety' in Hbody.
      destruct (Hc ((compile_ctx ctx ++ [ab]) ++ G) [] (CXVar CCns (new_id a) (cbty last)) (cbty last) sta body' st1 Hbody)
        as [J1 J2]; auto.
      { rewrite <- Hgb. apply tg_ext. rewrite <- app_assoc. apply same_on_app; [|apply compile_ctx_ids].
        rewrite compile_ctx_names. intros z Hz. apply remove_all_In in Hz. destruct Hz as [Hz _].
        simpl. cbn [cbvar ab]. assert (a <> z) by (intros ->; apply Hfresh; apply Hfvb; exact Hz).
        rewrite (new_id_neq _ _ H). reflexivity. }
      { eapply incl_tran; [exact Hfvb | exact Hgra]. }
      { intros z Hz. apply Hbd. apply in_or_app. left. apply in_or_app. right. exact Hz. }
      { intros z []. }
      { eapply incl_tran; [exact HU | exact Hgra]. }
      { intros G' Hag. apply ct_var. repeat split.
        assert (Hgen : gen sta a) by (split; [rewrite Hused; left; reflexivity | exact HnU]).
        rewrite (Hag a (or_intror Hgen)), Hla. unfold ab. rewrite Ety'. reflexivity. }
      { eapply Hfind_grows; eassumption. }
      destruct (J2 (tyd_fv_var _ _ _ Htdl)) as [J3 J4].
      split; [|split; [|split]].
      + apply cclauses_match_cons.
        repeat split; [apply cident_eqb_eq; exact Hid | | apply compile_ctx_snoc_nodup; assumption | exact I1].
        rewrite Esl. apply fparams_ok_snoc; [exact Hpar|].
        unfold csame_sig, ab. cbn [cbchi cbty]. rewrite Hchi, Ety', ceq_ty_refl. reflexivity.
      + constructor; [|exact I2]. unfold clause_typed. exact J1.
      + intros b Hb. apply fvc_cons_iff in Hb. destruct Hb as [[Hb _]|Hb]; [apply J3 | apply I3]; exact Hb.
      + eapply lifted_ok_trans; [|exact I4]. intros Hall. apply J4. rewrite Hlift. exact Hall.
  Qed.

  (* the continuation handed to the branches: the original one, or its shared form *)
  Lemma cont1_ok : forall (small : bool) cont cont1 st st0 ty G S,
    (if small then cont1 = cont /\ st0 = st else share cur cont st = Ok (cont1, st0)) ->
    KT cont ty G st S -> tyd ty = true -> incl S (st_used_vars st) -> incl U (st_used_vars st) ->
    Hfind (st_lifted st0) ->
    grows st st0 /\ KT cont1 ty G st0 S /\ (tyd_fv (fvt cont) -> tyd_fv (fvt cont1) /\ lifted_ok st st0).
  Proof.
    intros small cont cont1 st st0 ty G S H HK Htd HS HU Hf. destruct small.
    - destruct H as [-> ->]. split; [apply grows_refl|]. split; [exact HK|]. intros Hc. split; [exact Hc | apply lifted_ok_refl].
    - split; [eapply share_grows; exact H|].
      destruct (share_ok D C defs U cur cont st cont1 st0 ty G S H HK Htd HS HU Hf) as [H1 H2]. split; [exact H1 | exact H2].
  Qed.

  Lemma tyo_ann : forall (o : option fty) t, option_map compile_ty o = Some t -> exists ty0, o = Some ty0 /\ t = compile_ty ty0.
  Proof. intros [ty0|] t H; simpl in H; [|discriminate]. injection H as H. eauto. Qed.

  Lemma tc_var : forall v ty chi, TC (FVar v ty chi).
  Proof.
    intros v ty chi G t st c st' H Hg Hty Htd Hfv Hbd HU Hf. rewrite cmp_unfold in H.
    apply cmp_var_inv in H. destruct H as [ty0 [-> [-> ->]]].
    destruct (tyo_fterm_type _ _ Hty) as [? [[= <-] ->]].
    rewrite tg_var in Hg. pose proof Hg as Hv.
    apply var_ok_look in Hv. destruct Hv as [ty1 [E Hv]]. injection E as <-.
    split; [apply ct_var; repeat split; exact Hv|]. split; [apply tyd_fv_var; exact Htd | apply lifted_ok_refl].
  Qed.
  Lemma tc_lit : forall n, TC (FLit n).
  Proof.
    intros n G t st c st' H Hg Hty Htd Hfv Hbd HU Hf. rewrite cmp_unfold in H.
    unfold cmp_lit in H. apply mret_inv in H. destruct H as [-> ->]. unfold tyo in Hty. simpl in Hty. injection Hty as <-.
    split; [apply ct_lit; auto|]. split; [intros b Hb; apply fvt_lit in Hb; contradiction | apply lifted_ok_refl].
  Qed.
  Lemma tc_op : forall a o b, TC a -> TC b -> TC (FOp a o b).
  Proof.
    intros a o b Ha Hb G t st c st' H Hg Hty Htd Hfv Hbd HU Hf. rewrite cmp_unfold in H.
    apply cmp_op_inv in H. destruct H as [a' [st1 [b' [E1 [E2 ->]]]]].
    unfold tyo in Hty. simpl in Hty. injection Hty as <-.
    rewrite tg_op in Hg. apply andb_prop in Hg as [[[Hg1 Hg2]%andb_prop Hh1]%andb_prop Hh2]. apply has_ty_tyo in Hh1. apply has_ty_tyo in Hh2.
    simpl in Hfv, Hbd.
    assert (Hgr1 : grows st st1) by (eapply cmp_grows; exact E1).
    assert (Hgr2 : grows st1 st') by (eapply cmp_grows; exact E2).
    destruct (Ha G CI64 st a' st1 E1 Hg1 Hh1 eq_refl) as [A1 [A2 A3]]; auto.
    { exact (incl_app_l _ _ _ _ Hfv). } { exact (incl_app_l _ _ _ _ Hbd). } { eapply Hfind_grows; eassumption. }
    destruct (Hb G CI64 st1 b' st' E2 Hg2 Hh2 eq_refl) as [B1 [B2 B3]]; auto.
    { eapply incl_tran; [exact (incl_app_r _ _ _ _ Hfv) | apply grows_vars_incl; exact Hgr1]. }
    { exact (incl_app_r _ _ _ _ Hbd). }
    { eapply incl_tran; [exact HU | apply grows_vars_incl; exact Hgr1]. }
    split; [|split].
    - apply ct_op. repeat split; assumption.
    - intros bb Hbb. apply fvt_op in Hbb. destruct Hbb as [Hbb|Hbb]; [apply A2 | apply B2]; exact Hbb.
    - eapply lifted_ok_trans; eassumption.
  Qed.

  Lemma tw_ifc : forall so a b t1 t2 ty, TC a -> opt_P TC b -> TW t1 -> TW t2 -> TW (FIfC so a b t1 t2 ty).
  Proof.
    intros so a b t1 t2 ty Ha Hb H1 H2 G S cont t st s st' H Hg Hty Htd Hfv Hbd HS HU HK Hf. rewrite wc_unfold in H.
    apply wc_ifc_inv in H.
    destruct H as [cont1 [st0 [a' [sta [b' [stb [t' [stt [e' [Hsh [Ea [Eb [Et [Ee ->]]]]]]]]]]]]]].
    rewrite tg_ifc in Hg.
    apply andb_prop in Hg as [[[[[[Hga Hha]%andb_prop Hgb]%andb_prop Hg1]%andb_prop Hg2]%andb_prop Hs1]%andb_prop Hs2]. apply has_ty_tyo in Hha.
    unfold tyo in Hty. simpl in Hty. apply tyo_ann in Hty. destruct Hty as [ty0 [-> ->]].
    simpl in Hs1, Hs2. apply has_ty_tyo in Hs1. apply has_ty_tyo in Hs2.
    simpl in Hfv, Hbd.
    assert (Gb : grows sta stb).
    { destruct b as [b0|]; [destruct Eb as [b1 [Eb _]]; eapply cmp_grows; exact Eb | destruct Eb as [_ ->]; apply grows_refl]. }
    assert (Ga : grows st0 sta) by (eapply cmp_grows; exact Ea).
    assert (Gt : grows stb stt) by (eapply wc_grows; exact Et).
    assert (Ge' : grows stt st') by (eapply wc_grows; exact Ee).
    assert (G0' : grows st0 st') by (eapply grows_trans; [exact Ga|]; eapply grows_trans; [exact Gb|]; eapply grows_trans; eassumption).
    destruct (cont1_ok _ cont cont1 st st0 (compile_ty ty0) G S Hsh HK Htd HS HU) as [G0 [HK1 Hc1]].
    { eapply Hfind_grows; eassumption. }
    assert (Ust0 : incl (st_used_vars st) (st_used_vars st0)) by (apply grows_vars_incl; exact G0).
    assert (Usta : incl (st_used_vars st) (st_used_vars sta)) by (eapply incl_tran; [exact Ust0 | apply grows_vars_incl; exact Ga]).
    assert (Ustb : incl (st_used_vars st) (st_used_vars stb)) by (eapply incl_tran; [exact Usta | apply grows_vars_incl; exact Gb]).
    assert (Ustt : incl (st_used_vars st) (st_used_vars stt)) by (eapply incl_tran; [exact Ustb | apply grows_vars_incl; exact Gt]).
    destruct (Ha G CI64 st0 a' sta Ea Hga Hha eq_refl) as [A1 [A2 A3]]; auto.
    { eapply incl_tran; [exact (incl_app_l _ _ _ _ Hfv) | exact Ust0]. }
    { exact (incl_app_l _ _ _ _ Hbd). } { eapply incl_tran; [exact HU | exact Ust0]. }
    { eapply Hfind_grows; [|exact Hf]. eapply grows_trans; [exact Gb|]. eapply grows_trans; eassumption. }
    assert (HB : match b' with Some b1 => ct G CPrd CI64 b1 = None | None => True end /\
                 tyd_fv (match b' with Some b1 => fvt b1 | None => [] end) /\ lifted_ok sta stb).
    { destruct b as [b0|].
      - destruct Eb as [b1 [Eb ->]]. apply andb_prop in Hgb. destruct Hgb as [Hgb Hhb]. apply has_ty_tyo in Hhb.
        simpl in Hb. apply (Hb G CI64 sta b1 stb Eb Hgb Hhb eq_refl).
        + eapply incl_tran; [|exact Usta]. eapply incl_tran; [|exact (incl_app_r _ _ _ _ Hfv)]. apply incl_appl. apply incl_refl.
        + eapply incl_tran; [|exact (incl_app_r _ _ _ _ Hbd)]. apply incl_appl. apply incl_refl.
        + eapply incl_tran; [exact HU | exact Usta].
        + eapply Hfind_grows; [|exact Hf]. eapply grows_trans; eassumption.
      - destruct Eb as [-> ->]. split; [exact I|]. split; [intros b0 [] | apply lifted_ok_refl]. }
    destruct HB as [B1 [B2 B3]].
    assert (Hfvr : incl (fv_fterm t1 ++ fv_fterm t2) (st_used_vars st)).
    { eapply incl_tran; [|exact (incl_app_r _ _ _ _ Hfv)]. apply incl_appr. apply incl_refl. }
    assert (Hbdr : incl (bnd t1 ++ bnd t2) U).
    { eapply incl_tran; [|exact (incl_app_r _ _ _ _ Hbd)]. apply incl_appr. apply incl_refl. }
    destruct (H1 G S cont1 (compile_ty ty0) stb t' stt Et Hg1 Hs1 Htd) as [T1 T2]; auto.
    { eapply incl_tran; [exact (incl_app_l _ _ _ _ Hfvr) | exact Ustb]. }
    { exact (incl_app_l _ _ _ _ Hbdr). } { eapply incl_tran; [exact HS | exact Ustb]. } { eapply incl_tran; [exact HU | exact Ustb]. }
    { eapply KT_mono; [exact HK1 | | apply incl_refl]. eapply incl_tran; [apply grows_vars_incl; exact Ga | apply grows_vars_incl; exact Gb]. }
    { eapply Hfind_grows; eassumption. }
    destruct (H2 G S cont1 (compile_ty ty0) stt e' st' Ee Hg2 Hs2 Htd) as [E1 E2]; auto.
    { eapply incl_tran; [exact (incl_app_r _ _ _ _ Hfvr) | exact Ustt]. }
    { exact (incl_app_r _ _ _ _ Hbdr). } { eapply incl_tran; [exact HS | exact Ustt]. } { eapply incl_tran; [exact HU | exact Ustt]. }
    { eapply KT_mono; [exact HK1 | | apply incl_refl]. eapply incl_tran; [apply grows_vars_incl; exact Ga|].
      eapply incl_tran; [apply grows_vars_incl; exact Gb | apply grows_vars_incl; exact Gt]. }
    split.
    - apply cs_ifc. split; [exact A1|]. split; [exact B1|]. split; assumption.
    - intros Hc. destruct (Hc1 Hc) as [Hc1' L0]. destruct (T2 Hc1') as [T3 T4]. destruct (E2 Hc1') as [E3 E4]. split.
      + intros bb Hbb. apply fvs_ifc in Hbb. destruct Hbb as [Hbb|[Hbb|[Hbb|Hbb]]].
        * apply A2; exact Hbb.
        * apply B2. destruct b'; exact Hbb.
        * apply T3; exact Hbb.
        * apply E3; exact Hbb.
      + eapply lifted_ok_trans; [exact L0|]. eapply lifted_ok_trans; [exact A3|]. eapply lifted_ok_trans; [exact B3|].
        eapply lifted_ok_trans; eassumption.
  Qed.

  Lemma tw_print : forall nl a next ty, TC a -> TW next -> TW (FPrint nl a next ty).
  Proof.
    intros nl a next ty Ha Hn G S cont t st s st' H Hg Hty Htd Hfv Hbd HS HU HK Hf. rewrite wc_unfold in H.
    apply wc_print_inv in H. destruct H as [a' [st1 [next' [Ea [En ->]]]]].
    rewrite tg_print in Hg. apply andb_prop in Hg as [[[Hga Hha]%andb_prop Hgn]%andb_prop Hsn]. apply has_ty_tyo in Hha.
    unfold tyo in Hty. simpl in Hty. apply tyo_ann in Hty. destruct Hty as [ty0 [-> ->]].
    simpl in Hsn. apply has_ty_tyo in Hsn.
    simpl in Hfv, Hbd.
    assert (Ga : grows st st1) by (eapply cmp_grows; exact Ea).
    assert (Gn : grows st1 st') by (eapply wc_grows; exact En).
    destruct (Ha G CI64 st a' st1 Ea Hga Hha eq_refl) as [A1 [A2 A3]]; auto.
    { exact (incl_app_l _ _ _ _ Hfv). } { exact (incl_app_l _ _ _ _ Hbd). } { eapply Hfind_grows; eassumption. }
    destruct (Hn G S cont (compile_ty ty0) st1 next' st' En Hgn Hsn Htd) as [N1 N2]; auto.
    { eapply incl_tran; [exact (incl_app_r _ _ _ _ Hfv) | apply grows_vars_incl; exact Ga]. }
    { exact (incl_app_r _ _ _ _ Hbd). }
    { eapply incl_tran; [exact HS | apply grows_vars_incl; exact Ga]. } { eapply incl_tran; [exact HU | apply grows_vars_incl; exact Ga]. }
    { eapply KT_mono; [exact HK | apply grows_vars_incl; exact Ga | apply incl_refl]. }
    split.
    - apply cs_print. split; assumption.
    - intros Hc. destruct (N2 Hc) as [N3 N4]. split; [|eapply lifted_ok_trans; eassumption].
      intros bb Hbb. apply fvs_print in Hbb. destruct Hbb as [Hbb|Hbb]; [apply A2 | apply N3]; exact Hbb.
  Qed.

  (* ---------- terms whose continuation is placed under binders (let, case): the repaired translation
     [guard_capture] first checks that no binder is the name of a free variable of the continuation, and otherwise
     names the continuation: < mu a. w(a) | cont > ([mu_fresh]).  [tw_guard]: TW for the guarded translation from
     TWin for the inner one. ---------- *)
  Lemma tw_guard : forall t binders (w : cterm -> M cstmt) lty,
    (forall cont, wc' t cont = guard_capture false binders w lty cont) -> fterm_type t = lty ->
    TWin t binders w -> TW t.
  Proof.
    intros t binders w lty Hw Hlty Hin G S cont ty st s st' H Hg Hty Htd Hfv Hbd HS HU HK Hf.
    rewrite Hw in H. apply guard_capture_inv in H.
    destruct H as [[Hc H]|[Hc [ty0 [a [sta [s0 [Ety [Ha [Hc' [H ->]]]]]]]]]].
    - apply (Hin G S cont ty st s st' H Hc); assumption.
    - assert (Ety0 : ty = compile_ty ty0).
      { unfold tyo in Hty. rewrite Hlty, Ety in Hty. simpl in Hty. injection Hty as Hty. symmetry. exact Hty. }
      subst ty.
      eapply cut_ok; [|exact Htd|exact HK].
      apply (mu_fresh t binders w Hin G (compile_ty ty0) st a sta s0 st' Ha H Hc'); assumption.
  Qed.

  Lemma tw_let_in : forall v vty bound body ty, TW bound -> TC bound -> TW body ->
    TWin (FLet v vty bound body ty) [v] (wc_let C v vty (cmp' bound) (wc' bound) (wc' body)).
  Proof.
    intros v vty bound body ty Hbw Hbc Hbo G S cont t st s st' H Hcap Hg Hty Htd Hfv Hbd HS HU HK Hf.
    rewrite tg_let in Hg. apply andb_prop in Hg as [[[[Hgb Hhb]%andb_prop Htdv]%andb_prop Hgbo]%andb_prop Hsb]. apply has_ty_tyo in Hhb.
    unfold tyo in Hty. simpl in Hty. apply tyo_ann in Hty. destruct Hty as [ty0 [-> ->]].
    simpl in Hsb. apply has_ty_tyo in Hsb.
    simpl in Hfv, Hbd.
    assert (HvU : In v U) by (apply Hbd; left; reflexivity).
    set (vb := mkcb (new_id v) CPrd (compile_ty vty)).
    set (S' := remove_all [v] (fv_fterm body ++ S)).
    (* the body, in any scope that agrees with G on its free names and on those of the continuation *)
    assert (Hbody : forall body' st1, wc' body cont st = Ok (body', st1) ->
              forall G' stf, incl (st_used_vars st1) (st_used_vars stf) -> Hfind (st_lifted st1) -> agree stf S' G' G ->
              cs (vb :: G') body' = None /\ (tyd_fv (fvt cont) -> tyd_fv (fvs body') /\ lifted_ok st st1)).
    { intros body' st1 Eb G' stf Hstf Hf1 Hag.
      assert (Gb : grows st st1) by (eapply wc_grows; exact Eb).
      apply (Hbo (vb :: G') S cont (compile_ty ty0) st body' st1 Eb); auto.
      - rewrite <- Hgbo. apply tg_ext. apply (same_on_cons _ _ _ _ v); [reflexivity|].
        intros z Hz. apply Hag. left. unfold S'. apply remove_all_In. apply remove_all_In in Hz. destruct Hz as [Hz1 Hz2].
        split; [apply in_or_app; left; exact Hz1 | exact Hz2].
      - intros z Hz. destruct (string_dec z v) as [->|Hne]; [apply HU; exact HvU|].
        apply Hfv. apply in_or_app. right. apply remove_all_In. split; [exact Hz|]. intros [E|[]]. congruence.
      - intros z Hz. apply Hbd. right. apply in_or_app. right. exact Hz.
      - apply (KT_rebind D C defs U cont _ G _ st S [v] HK Hcap).
        intros y Hy Hny. rewrite clookup_cons. cbn [cbvar vb].
        assert (Hne : v <> y) by (intros ->; apply Hny; left; reflexivity).
        rewrite (new_id_neq _ _ Hne). apply Hag. destruct Hy as [Hy|[Hy1 Hy2]].
        + left. unfold S'. apply remove_all_In. split; [apply in_or_app; right; exact Hy | exact Hny].
        + right. split; [apply Hstf; apply (grows_vars_incl _ _ Gb); exact Hy1 | exact Hy2]. }
    destruct (ty_is_codata C (compile_ty vty)) eqn:Ecd.
    - (* by name: the bound term is compiled on its own *)
      apply wc_let_inv_codata in H; [|exact Ecd]. destruct H as [body' [st1 [pb [Eb [Ep ->]]]]].
      assert (Gb : grows st st1) by (eapply wc_grows; exact Eb).
      assert (Gp : grows st1 st') by (eapply cmp_grows; exact Ep).
      destruct (Hbody body' st1 Eb G st1 (incl_refl _)) as [B1 B2].
      { eapply Hfind_grows; eassumption. } { apply agree_refl. }
      destruct (Hbc G (compile_ty vty) st1 pb st' Ep Hgb Hhb Htdv) as [P1 [P2 P3]]; auto.
      { eapply incl_tran; [exact (incl_app_l _ _ _ _ Hfv) | apply grows_vars_incl; exact Gb]. }
      { intros z Hz. apply Hbd. right. apply in_or_app. left. exact Hz. }
      { eapply incl_tran; [exact HU | apply grows_vars_incl; exact Gb]. }
      split.
      + apply cs_cut. split; [exact Htdv|]. split; [exact P1|]. apply ct_mu. repeat split. exact B1.
      + intros Hc. destruct (B2 Hc) as [B3 B4]. split; [|eapply lifted_ok_trans; eassumption].
        intros bb Hbb. apply fvs_cut in Hbb. destruct Hbb as [Hbb|Hbb]; [apply P2; exact Hbb|].
        apply fvt_mu_1 in Hbb. apply B3. exact Hbb.
    - (* by value: the bound term is compiled with the continuation mu~ v. body *)
      apply wc_let_inv in H; [|exact Ecd]. destruct H as [body' [st1 [Eb Ebd]]].
      assert (Gb : grows st st1) by (eapply wc_grows; exact Eb).
      assert (Gp : grows st1 st') by (eapply wc_grows; exact Ebd).
      assert (Hf1 : Hfind (st_lifted st1)) by (eapply Hfind_grows; eassumption).
      destruct (Hbw G S' (CMu CCns (new_id v) body' (compile_ty vty)) (compile_ty vty) st1 s st' Ebd Hgb Hhb Htdv)
        as [W1 W2]; auto.
      { eapply incl_tran; [exact (incl_app_l _ _ _ _ Hfv) | apply grows_vars_incl; exact Gb]. }
      { intros z Hz. apply Hbd. right. apply in_or_app. left. exact Hz. }
      { intros z Hz. unfold S' in Hz. apply remove_all_In in Hz. destruct Hz as [Hz Hne]. apply (grows_vars_incl _ _ Gb).
        apply in_app_or in Hz. destruct Hz as [Hz|Hz]; [|apply HS; exact Hz].
        apply Hfv. apply in_or_app. right. apply remove_all_In. split; assumption. }
      { eapply incl_tran; [exact HU | apply grows_vars_incl; exact Gb]. }
      { intros G' Hag. apply ct_mu. repeat split. apply (Hbody body' st1 Eb G' st1 (incl_refl _) Hf1 Hag). }
      split; [exact W1|]. intros Hc.
      destruct (Hbody body' st1 Eb G st1 (incl_refl _) Hf1 (agree_refl _ _ _ _)) as [_ B2]. destruct (B2 Hc) as [B3 B4].
      assert (Hcm : tyd_fv (fvt (CMu CCns (new_id v) body' (compile_ty vty)))).
      { intros bb Hbb. apply fvt_mu_1 in Hbb. apply B3. exact Hbb. }
      destruct (W2 Hcm) as [W3 W4]. split; [exact W3 | eapply lifted_ok_trans; eassumption].
  Qed.

  Lemma args_typed_snoc : forall G l sig a b, args_typed G l sig -> arg_typed D C defs G a b -> args_typed G (l ++ [a]) (sig ++ [b]).
  Proof. intros G l sig a b H1 H2. apply Forall2_app; [exact H1 | constructor; [exact H2 | constructor]]. Qed.

  Lemma tw_call : forall f args ret, Forall TC args -> TW (FCall f args ret).
  Proof.
    intros f args ret Ha G S cont t st s st' H Hg Hty Htd Hfv Hbd HS HU HK Hf. rewrite wc_unfold in H.
    apply wc_call_inv in H. destruct H as [args' [ret0 [Es [-> ->]]]].
    rewrite tg_call in Hg. apply andb_prop in Hg. destruct Hg as [Hnm Hg].
    assert (Hnm' : f <> "main" \/ calls_main_prog p = true).
    { apply orb_prop in Hnm. destruct Hnm as [Hnm|Hnm]; [left; apply negb_true_iff in Hnm; apply String.eqb_neq in Hnm; exact Hnm | right; exact Hnm]. }
    clear Hnm. rename Hnm' into Hnm.
    destruct (ffind_def p f) as [d|] eqn:Ed; [|discriminate].
    apply andb_prop in Hg as [[Hga Hret]%andb_prop Htdr]. apply ceq_ty in Hret.
    unfold tyo in Hty. simpl in Hty. injection Hty as <-.
    rewrite fv_call in Hfv. simpl in Hbd.
    destruct (Hcallee f d Ed Hnm) as [a [body Hfd]].
    destruct (tw_args args Ha G _ st args' st' Es Hga) as [A1 [A2 A3]]; auto.
    split.
    - apply cs_call. split; [exact Htd|]. eexists. split; [exact Hfd|]. cbn [cdctx].
      apply args_typed_snoc; [exact A1|]. unfold arg_typed. cbn [cbchi cbty]. rewrite <- Hret. eapply KT_here. exact HK.
    - intros Hc. split; [|exact A3]. intros bb Hbb. apply fvs_call in Hbb. apply fva_app in Hbb.
      destruct Hbb as [Hbb|Hbb]; [apply A2; exact Hbb|]. apply fva_cons in Hbb.
      destruct Hbb as [Hbb|Hbb]; [apply Hc; exact Hbb | apply fva_nil in Hbb; contradiction].
  Qed.

  Lemma tc_ctor : forall x args ty, Forall TC args -> TC (FCtor x args ty).
  Proof.
    intros x args ty Ha G t st c st' H Hg Hty Htd Hfv Hbd HU Hf. rewrite cmp_unfold in H.
    apply cmp_ctor_inv in H. destruct H as [args' [ty0 [Es [-> ->]]]].
    destruct (tyo_fterm_type _ _ Hty) as [? [[= <-] ->]].
    rewrite tg_ctor, Hty in Hg. destruct (compile_ty ty0) as [|n]; [discriminate|].
    destruct (find_decl D n) as [d|] eqn:Ed; [|discriminate]. destruct (find_cxtor d (new_id x)) as [sg|] eqn:Esg; [|discriminate].
    rewrite fv_ctor in Hfv. simpl in Hbd.
    destruct (tw_args args Ha G _ st args' st' Es Hg) as [A1 [A2 A3]]; auto.
    split; [|split; assumption].
    apply ct_xtor. repeat split. exists n, d, sg. repeat split; assumption.
  Qed.
End Main.
