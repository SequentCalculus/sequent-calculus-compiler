(* C07, forward simulation of the AArch64 code generator: programs of the integer fragment.
   - the frame above the spill area (X19-X30 stored by the prologue) as "the stack above sp + SPILL_SPACE is
     what the prologue left";
   - progress: a linearly well-typed statement never gets stuck under the relation;
   - `sim_step`: one step of a statement that every fragment has (Substitute, Call, Literal, Op, PrintI64, IfC,
     Exit), for any closure predicate CL, given the simulation of whatever the linear machine runs next;
   - `sim_exec`: by induction on the fuel of the linear machine, the code emitted for a statement of the integer
     fragment, placed in an image in which the definitions' labels and `cleanup` resolve, runs to the machine's
     observation (results and undefined operations; print trace included).  Mirrors Proof/X86SimProg.v. *)
From Coq Require Import List ZArith NArith String Bool Lia FMapPositive.
From SCC Require Import Lang.AxSyn Sem.AxSem Model.Backend Model.A64 Sem.A64Sem Model.LinCheck Proof.LinBasics
     Proof.A64State Proof.A64Exec Proof.SubstGraph Proof.A64SimRel Proof.A64SimStmt.
Import ListNotations.
Open Scope Z_scope.
Open Scope list_scope.

(* st0 = the stack as the prologue left it: the words at and above sp + SPILL_SPACE hold X19..X29, X30 *)
Definition outer_ok (st0 : PM.t Z) (sp : Z) (s : astate) : Prop :=
  forall k, sp + SPILL_SPACE <= Z.pos k - 1 -> PM.find k (stack s) = PM.find k st0.

Lemma above_eq_outer st0 s s' sp : above_eq s s' sp -> outer_ok st0 sp s -> outer_ok st0 sp s'.
Proof.
  intros (_ & K) O k Hk. rewrite K; [apply O; exact Hk|]. change SPILL_SPACE with 2048 in Hk. lia.
Qed.
Lemma frame_eq_outer st0 s s' sp : sp_ok sp -> frame_eq s s' sp -> outer_ok st0 sp s -> outer_ok st0 sp s'.
Proof.
  intros SPK (_ & _ & K) O k Hk. rewrite K; [apply O; exact Hk|].
  intros p P E. destruct (slot_addr_facts sp p SPK P) as (_ & _ & _ & _ & NN).
  subst k. unfold key in Hk. rewrite Z2Pos.id in Hk by lia.
  unfold slot_addr, stack_offset in Hk. lia.
Qed.

(* progress: a linearly well-typed statement of the fragment does not get stuck *)
Lemma has_ext_lookup_int CL c e st sp a : rel CL c e st sp -> has_ext c a = true -> exists x, lookup_int e a = Some x.
Proof.
  intros R H. unfold has_ext, has in H. destruct (lookup_b c (idn a)) as [b|] eqn:L; [|discriminate].
  apply lookup_b_Some in L as [Hin Hid]. apply andb_true_iff in H as [K T]. apply chi_eqb_eq in K. apply ty_eqb_eq in T.
  assert (I : In (idn a) (env_ids e)).
  { rewrite (rel_ids R), <- Hid. now apply In_ids. }
  destruct (lookup_of_in e _ I) as (v & Lv). destruct (lookup_nth e _ _ Lv) as (i & y & Hi & Ey).
  destruct (rel_vals R i y v Hi) as (b' & Hb' & V).
  destruct (env_ctx_nth c e i y v (rel_ids R) Hi) as (b0 & Hb0 & Eb0). assert (b0 = b') by congruence. subst b0.
  apply In_nth_error in Hin as (i' & Hi').
  assert (i' = i) by (eapply (ids_nth_inj c i' i b b'); eauto using (rel_nodup R); congruence). subst i'.
  assert (b' = b) by congruence. subst b'.
  inversion V; subst; [|congruence]. exists z. unfold lookup_int, lookup_id. now rewrite Lv.
Qed.
Lemma has_lookup_id CL c e st sp a k t : rel CL c e st sp -> has c a k t = true -> exists v, lookup_id e a = Some v.
Proof.
  intros R H. unfold has in H. destruct (lookup_b c (idn a)) as [b|] eqn:L; [|discriminate].
  apply lookup_b_Some in L as [Hin Hid]. apply lookup_of_in. rewrite (rel_ids R), <- Hid. now apply In_ids.
Qed.

Lemma stmt_int_cf s : stmt_int s = true -> stmt_cf s = true.
Proof.
  induction s using stmt_ind2; cbn [stmt_int stmt_cf]; intros SI; try discriminate; auto.
  - apply andb_true_iff in SI as [A B]. rewrite (IHs B), andb_true_r.
    rewrite forallb_forall in *. intros q Hq. specialize (A q Hq). unfold is_int_binding in A. unfold is_cf_binding.
    destruct (bchi (fst q)), (bty (fst q)); auto; discriminate.
  - apply andb_true_iff in SI as [A B]. now rewrite IHs1, IHs2.
Qed.

(* the statements every fragment shares, and the statements the linear machine may run after one of them *)
Definition plain_stmt (s : stmt) : bool :=
  match s with
  | Substitute _ _ | Call _ _ | Literal _ _ _ | Op _ _ _ _ _ | PrintI64 _ _ _ | IfC _ _ _ _ _ | Exit _ => true
  | _ => false
  end.
Definition runs_next (p : prog) (s s' : stmt) : Prop :=
  match s with
  | Substitute _ n | Literal _ _ n | Op _ _ _ _ n | PrintI64 _ _ n => s' = n
  | IfC _ _ _ t e => s' = t \/ s' = e
  | Call _ _ => exists d, In d (pdefs p) /\ s' = dbody d
  | _ => False
  end.

(* every definition's label resolves to the code emitted for its body *)
Definition defs_placed (im : image) (p : prog) : Prop :=
  forall d, In d (pdefs p) ->
  exists pcd lcd cd lcd', find_label (labels im) (show_ident (dname d) +++ "_") = Some pcd /\
    PM.find pcd (code im) = Some (LAB (show_ident (dname d) +++ "_")) /\
    acs (ptypes p) (dbody d) (dctx d) lcd = Ok (cd, lcd') /\
    code_at im (Pos.succ pcd) cd /\ labels_at_nh im (Pos.succ pcd) cd.
(* `cleanup` resolves, and from there the run ends with the value of X0 (Proof/A64SimTop.v: epilogue_ok) *)
Definition cleanup_placed (im : image) (sp : Z) (st0 : PM.t Z) : Prop :=
  exists pcc, find_label (labels im) "cleanup" = Some pcc /\
  forall s z, frame_ok s sp -> outer_ok st0 sp s -> rget s RETURN1 = Some z -> finishes im pcc s (finish (out s) (OExit z)).

Section Main.
Variable im : image.
Variable p : prog.
Variable sp : Z.
Variable CL : Z -> ident -> list clause -> Prop.
Variable st0 : PM.t Z.
Local Notation rel := (rel CL).
Local Notation outer_ok := (outer_ok st0 sp).
Hypothesis DEFS : defs_placed im p.
Hypothesis CLEAN : cleanup_placed im sp st0.
Hypothesis LIN : forall d, In d (pdefs p) -> lin_check (sigs_of p) (dctx d) (dbody d) = true.
Hypothesis INT : forall d, In d (pdefs p) -> def_int d = true.
Hypothesis LITS : forall d, In d (pdefs p) -> stmt_lits (dbody d) = true.

(* the code emitted for s, placed in the image, runs from a related state to the observation of the linear
   machine with the given fuel *)
Definition simulates (fuel : nat) (s : stmt) : Prop :=
  forall c e ot st pc code lc lc',
    stmt_lits s = true -> lin_check (sigs_of p) c s = true ->
    acs (ptypes p) s c lc = Ok (code, lc') -> code_at im pc code -> labels_at_nh im pc code ->
    rel c e st sp -> outer_ok st -> out st = ot ->
    not_oof (exec_linear fuel p e s ot) -> finishes im pc st (exec_linear fuel p e s ot).

(* one step of a shared statement, whatever the fragment: progress (a linearly well-typed statement does not get
   stuck under the relation), the statement-level lemma, then the statement that runs next *)
Lemma sim_step fuel s :
  plain_stmt s = true -> (forall s', runs_next p s s' -> simulates fuel s') -> simulates (S fuel) s.
Proof.
  intros PS K c e ot st pc code lc lc' SL LC CS CA LA R OK OUT G.
  pose proof (rel_frame R) as F. pose proof (proj2 F) as SPOK.
  assert (FO : forall s', frame_eq st s' sp -> outer_ok s' /\ out s' = ot).
  { intros s' FE. split; [eapply frame_eq_outer; eauto|destruct FE as (_ & O & _); congruence]. }
  destruct s as [re next|label args|v t tag args next|v t cls|v t env cls next|v tag t args|n v next|a op b v next|nl v next|so a b thenc elsec|v];
    try discriminate PS; cbn [exec_linear] in G |- *; cbn [stmt_lits] in SL; cbn [lin_check] in LC;
    apply andb_true_iff in LC as [_ LC]; cbn [runs_next] in K.
  - (* Substitute *)
    apply andb_true_iff in LC as [LCs LC]. rewrite forallb_forall in LCs.
    destruct (lookups_total e (map snd re)) as (vs & LK & LV).
    { intros x Hx. apply in_map_iff in Hx as (q & <- & Hq). eapply (has_lookup_id CL); eauto. }
    destruct (bind_total (map (fun r : binding * ident => bvar (fst r)) re) vs) as (e' & BD); [rewrite LV, !map_length; reflexivity|].
    rewrite LK, BD in G |- *.
    destruct (cs_substitute _ _ _ _ _ _ _ CS) as (c1 & lc1 & c2 & c3 & WC & CE & NX & ->).
    assert (NDn : NoDup (new_ids re)) by (rewrite <- ids_new; exact (lin_nodup _ _ _ LC)).
    rewrite app_assoc in CA, LA. apply code_at_app in CA as [CA2 CA3]. apply labels_at_nh_app in LA as [LA2 LA3].
    destruct (sim_substitute im CL c e st sp re vs e' c1 lc lc1 c2 pc R NDn LCs LK BD WC CE CA2 LA2) as (s' & X & R' & FE).
    destruct (FO s' FE) as [OK' O']. eapply exec_to_finishes; [exact X|].
    exact (K next eq_refl _ e' ot s' _ c3 lc1 lc' SL LC NX CA3 LA3 R' OK' O' G).
  - (* Call *)
    destruct (lookup_label (sigs_of p) label) as [ps|] eqn:LL; [|discriminate].
    destruct (lookup_label_find_def p label ps LL) as (d & FD & <-).
    destruct (bind_total (vars (dctx d)) (map snd e)) as (e' & BD).
    { apply sig_match_iff, same_kt_length in LC. unfold vars. rewrite !map_length, (rel_length R). auto. }
    rewrite FD, BD in G |- *.
    unfold find_def in FD. apply find_some in FD as [IN EQ]. apply ident_eqb_eq in EQ. subst label.
    destruct (cs_call _ _ _ _ _ _ _ CS) as (-> & _).
    destruct (DEFS d IN) as (pcd & lcd & cd & lcd' & FL & CLb & CSd & CAd & LAd).
    apply code_at_cons in CA as [CJ _].
    eapply exec_to_finishes.
    { eapply exec_jump; [exact CJ|cbn [step]; unfold goto_label; rewrite FL; reflexivity|].
      eapply exec_next; [exact CLb|reflexivity|apply exec_refl]. }
    pose proof (lin_nodup _ _ _ (LIN d IN)) as NDd.
    exact (K (dbody d) (ex_intro _ d (conj IN eq_refl)) (dctx d) e' ot st _ cd lcd lcd' (LITS d IN) (LIN d IN) CSd CAd LAd
             (bind_rel CL c e st sp (dctx d) e' R NDd LC BD) OK OUT G).
  - (* Literal *)
    apply andb_true_iff in SL as [SLn SL].
    destruct (cs_literal _ _ _ _ _ _ _ _ CS) as (tv & c2 & TV & NX & ->).
    destruct (sim_literal im CL c e st sp n v tv R (lin_nodup _ _ _ LC) (proj1 (lit_i64_in64 n) SLn) TV) as (s' & E & R' & FE).
    apply code_at_app in CA as [CA1 CA2]. apply labels_at_nh_app in LA as [_ LA2]. destruct (FO s' FE) as [OK' O'].
    eapply exec_to_finishes; [apply (run_straight_exec_to im _ pc st s' CA1 E)|].
    exact (K next eq_refl _ _ ot s' _ c2 lc lc' SL LC NX CA2 LA2 R' OK' O' G).
  - (* Op *)
    apply andb_true_iff in LC as [LCo LC]. apply andb_true_iff in LCo as [HA HB].
    destruct (has_ext_lookup_int CL c e st sp a R HA) as (x & LA1).
    destruct (has_ext_lookup_int CL c e st sp b R HB) as (y & LB1).
    rewrite LA1, LB1 in G |- *.
    destruct (cs_op _ _ _ _ _ _ _ _ _ _ CS) as (tv & ta & tb & c2 & TV & TA & TB & NX & ->).
    apply code_at_app in CA as [CA1 CA2]. apply labels_at_nh_app in LA as [_ LA2].
    destruct (eval_op op x y) as [z|w] eqn:EV.
    + destruct (sim_op im CL c e st sp a op b v x y z tv ta tb R (lin_nodup _ _ _ LC) LA1 LB1 EV TV TA TB) as (s' & E & R' & FE).
      destruct (FO s' FE) as [OK' O'].
      eapply exec_to_finishes; [apply (run_straight_exec_to im _ pc st s' CA1 E)|].
      exact (K next eq_refl _ _ ot s' _ c2 lc lc' SL LC NX CA2 LA2 R' OK' O' G).
    + destruct (sim_op_undef im CL c e st sp a op b v x y w tv ta tb R (lin_nodup _ _ _ LC) LA1 LB1 EV TV TA TB) as (s' & E & O).
      rewrite <- OUT, <- O. eapply exec_undef_finishes; eauto.
  - (* PrintI64 *)
    apply andb_true_iff in LC as [HV LC].
    destruct (has_ext_lookup_int CL c e st sp v R HV) as (z & LV).
    rewrite LV in G |- *.
    destruct (cs_print _ _ _ _ _ _ _ _ CS) as (tv & c2 & TV & NX & ->).
    destruct (sim_print im CL c e st sp nl v z tv R LV TV) as (s' & E & R' & O & AE).
    apply code_at_app in CA as [CA1 CA2]. apply labels_at_nh_app in LA as [_ LA2].
    eapply exec_to_finishes; [apply (run_straight_exec_to im _ pc st s' CA1 E)|].
    refine (K next eq_refl c e _ s' _ c2 lc lc' SL LC NX CA2 LA2 R' (above_eq_outer st0 st s' sp AE OK) _ G).
    congruence.
  - (* IfC *)
    apply andb_true_iff in SL as [SL1 SL2].
    apply andb_true_iff in LC as [LC LCe]. apply andb_true_iff in LC as [LCo LCt]. apply andb_true_iff in LCo as [HA HB].
    destruct (has_ext_lookup_int CL c e st sp a R HA) as (x & LA1).
    assert (LB1 : exists y, match b with Some b0 => lookup_int e b0 | None => Some 0 end = Some y).
    { destruct b as [b|]; [|eauto]. exact (has_ext_lookup_int CL c e st sp b R HB). }
    destruct LB1 as (y & LB1). rewrite LA1, LB1 in G |- *.
    destruct (sim_ifc im CL c e st sp so a b x y (ptypes p) thenc elsec lc code lc' pc R LA1 LB1 CS CA LA)
      as (c1 & c2 & lc2 & c3 & s' & -> & EL & TH & X & R' & FE).
    destruct (FO s' FE) as [OK' O'].
    eapply exec_to_finishes; [exact X|].
    apply code_at_app in CA as [_ CA]. apply code_at_app in CA as [CA2 CA]. apply code_at_app in CA as [_ CA3].
    apply labels_at_nh_app in LA as [_ LA]. apply labels_at_nh_app in LA as [LA2 LA]. apply labels_at_nh_app in LA as [_ LA3].
    rewrite <- !padd_add in CA3, LA3. cbn [List.length] in CA3, LA3. rewrite Nat.add_assoc in CA3, LA3.
    destruct (eval_cmp so x y).
    + exact (K thenc (or_introl eq_refl) c e ot s' _ c3 lc2 lc' SL1 LCt TH CA3 LA3 R' OK' O' G).
    + exact (K elsec (or_intror eq_refl) c e ot s' _ c2 (lc + 1)%N lc2 SL2 LCe EL CA2 LA2 R' OK' O' G).
  - (* Exit *)
    destruct (has_ext_lookup_int CL c e st sp v R LC) as (z & LV).
    rewrite LV in G |- *.
    destruct (cs_exit _ _ _ _ _ _ CS) as (tv & TV & -> & _).
    destruct (sim_exit_mov im CL c e st sp v z tv R LV TV) as (s' & E & RAX & F' & FE).
    apply code_at_app in CA as [CA1 CA2]. apply code_at_cons in CA2 as [CJ _].
    destruct CLEAN as (pcc & FL & EPI). destruct (FO s' FE) as [OK' O'].
    eapply exec_to_finishes; [apply (run_straight_exec_to im _ pc st s' CA1 E)|].
    eapply exec_to_finishes.
    { eapply exec_jump; [exact CJ|cbn [step]; unfold goto_label; rewrite FL; reflexivity|apply exec_refl]. }
    rewrite <- O'. exact (EPI s' z F' OK' RAX).
Qed.

(* the integer fragment is closed under `runs_next` *)
Lemma stmt_int_next s s' : stmt_int s = true -> runs_next p s s' -> stmt_int s' = true.
Proof.
  destruct s; cbn [stmt_int runs_next]; intros SI N; try discriminate; try contradiction; subst; auto.
  - apply andb_true_iff in SI. tauto.
  - destruct N as (d & IN & ->). pose proof (INT d IN) as D. apply andb_true_iff in D. tauto.
  - apply andb_true_iff in SI. destruct N; subst; tauto.
Qed.
Lemma stmt_int_plain s : stmt_int s = true -> plain_stmt s = true.
Proof. destruct s; auto. Qed.

Lemma sim_int : forall fuel s, stmt_int s = true -> simulates fuel s.
Proof.
  induction fuel as [|fuel IH]; intros s SI.
  - intros c e ot st pc code lc lc' _ _ _ _ _ _ _ _ G. exfalso. apply G. reflexivity.
  - apply sim_step; [apply stmt_int_plain, SI|]. intros s' N. apply IH. exact (stmt_int_next s s' SI N).
Qed.

Lemma sim_exec : forall fuel s c e ot st pc code lc lc',
  stmt_int s = true -> stmt_lits s = true -> ctx_int c = true -> lin_check (sigs_of p) c s = true ->
  acs (ptypes p) s c lc = Ok (code, lc') -> code_at im pc code -> labels_at_nh im pc code ->
  rel c e st sp -> outer_ok st -> out st = ot ->
  not_oof (exec_linear fuel p e s ot) -> finishes im pc st (exec_linear fuel p e s ot).
Proof. intros fuel s c e ot st pc code lc lc' SI SL _. exact (sim_int fuel s SI c e ot st pc code lc lc' SL). Qed.
End Main.
