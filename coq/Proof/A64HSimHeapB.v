(* C07, forward simulation for HEAP statements on AArch64, part 6b: Let and Create (x86-64: Proof/X86HSimHeapB.v).
   `hclo_ok` is what the data word of a closure points to: the address of its label (plus the table offset) has a
   landing index (the first instruction of non-zero size at that address, Proof/A64SimAddr.v `land`), and every run
   from the start of the code `a_load cenv cx ++ body` of the clause continues from the landing index
   (`finishes`-form: with at most one clause the landing index lies behind the labels in front of the clause code,
   possibly inside it, see Proof/A64HLayout.v); the code is generated for the clause context followed by the
   captured context, and linearly checked there.

   DIFFERENCES FROM x86-64: hypothesis `TAGS` (every type has fewer than 2^61 constructors): the tag
   word `jump_length k = 4k` of a Let is synthesised by MOVZ/MOVK (`a64_load_immediate_ok` needs a 64-bit value);
   x86-64's `mov r, imm64` takes any Z.  `fwd_ok im` (Proof/A64HLayout.v) replaces `back_ok im`. *)
From Coq Require Import List ZArith NArith String Bool Lia FMapPositive Permutation.
From SCC Require Import Base.Sexp Lang.AxSyn Sem.AxSem Sem.AxHeap Model.ParMoves Model.Backend Model.A64 Sem.A64Sem
     Model.Linearize Model.LinCheck Generated.Constants Proof.LinBasics Proof.LinTyping
     Proof.A64State Proof.A64ImmHw Proof.A64Imm Proof.A64Sel Proof.A64PM Proof.A64Exec
     Proof.A64MemSubst Proof.SubstGraph Proof.SubstBackends Proof.A64Subst Proof.A64Wf Proof.A64Print
     Proof.A64SimRel Proof.A64SimStmt Proof.A64SimAddr Proof.A64SimClo Proof.HRep Proof.A64Mem Proof.A64MemOps
     Proof.A64HSimRel Proof.A64HSimStmt Proof.A64HConv Proof.A64HSimStore Proof.A64HSimLoad Proof.A64HLayout
     Proof.A64HSimHeapA Proof.X86HAnn.
From SCC Require Model.Heap Proof.HeapMore Proof.HeapTrace Proof.HeapRep
     Proof.X86Mem Proof.X86MemFrame Proof.X86HeapDefs Proof.X86HeapCongr Proof.X86HBridge Proof.X86HFrame
     Proof.X86HSimHeapA Proof.X86HSimHeapB.
Import ListNotations.
Open Scope Z_scope.
Open Scope list_scope.

Notation same_kt_nth := X86HSimHeapB.same_kt_nth.
Notation ty_name_Decl := X86HSimHeapB.ty_name_Decl.
Notation firstn_app_exact := X86HSimHeapB.firstn_app_exact.

(* the lemmas of Proof/X86HSimHeapB.v about `same_kinds` / `ctx_of_env`, read on the constants of Proof/HRep.v (which unfold
   to the same terms as those of Proof/X86HSimRel.v) *)
Lemma same_kinds_intro (fs : list value) (sg : ctx) : List.length fs = List.length sg ->
  (forall i f b, nth_error fs i = Some f -> nth_error sg i = Some b -> chi_of f = bchi b /\ ty_of f = bty b) ->
  HRep.same_kinds fs sg.
Proof. exact (X86HSimHeapB.same_kinds_intro fs sg). Qed.

(* the captured environment of a new closure stands for exactly the context it was taken from *)
Lemma ctx_of_env_bind (env : ctx) (vs : list value) ce :
  bind (vars env) vs = Some ce ->
  (forall i b v, nth_error env i = Some b -> nth_error vs i = Some v -> chi_of v = bchi b /\ ty_of v = bty b) ->
  HRep.ctx_of_env ce = env /\ map snd ce = vs.
Proof. exact (X86HSimHeapB.ctx_of_env_bind env vs ce). Qed.

Lemma xtor_position_lt : forall (xs : list xtorsig) tag i k,
  xtor_position xs tag i = Ok k -> (k < i + N.of_nat (List.length xs))%N.
Proof.
  induction xs as [|x r IH]; intros tag i k H; cbn [xtor_position] in H; [discriminate|].
  destruct (ident_eqb (xname x) tag).
  - inversion H; subst. cbn [List.length]. lia.
  - apply IH in H. cbn [List.length]. lia.
Qed.

Section HB.
Variable im : image.
Variable p : prog.
Hypothesis IMG : img_ok im.
Hypothesis FWD : fwd_ok im.
Hypothesis SMALL : forall pc a, PM.find pc (addr_of im) = Some a -> a < 4611686018427387904.
(* every jump-table offset is a 64-bit value (4 * 2^61 = 2^63) *)
Hypothesis TAGS : forall d, In d (ptypes p) -> Z.of_nat (List.length (txtors d)) < 2305843009213693952.

Definition hclo_ok (a : Z) (tn : ident) (cls : list clause) (cenv : ctx) : Prop :=
  cls_ok (sigs_of p) (Decl tn) cls = true /\ 0 <= a < 4611686018427387904 /\
  forall k c, nth_error cls k = Some c ->
    exists i pcc lcl cl lcb cb lcb',
      PM.find (key (a + (if Nat.leb (List.length cls) 1 then 0 else jump_length (N.of_nat k)))) (index_at im) = Some i /\
      a + (if Nat.leb (List.length cls) 1 then 0 else jump_length (N.of_nat k)) < 4611686018427387904 /\
      (forall s o, finishes im pcc s o -> finishes im i s o) /\
      a_load cenv (cl_ctx c) lcl = Ok (cl, lcb) /\ acs (ptypes p) (cl_body c) (cl_ctx c ++ cenv) lcb = Ok (cb, lcb') /\
      code_at im pcc (cl ++ cb) /\ labels_at_nh im pcc (cl ++ cb) /\
      lin_check (sigs_of p) (cl_ctx c ++ cenv) (cl_body c) = true /\ ann_check (cl_ctx c ++ cenv) (cl_body c) = true /\
      stmt_lits (cl_body c) = true.   (* AArch64: the literals of the body are 64-bit values *)

Local Notation hrel := (hrel (ptypes p) hclo_ok).
Local Notation hvrep := (hvrep (ptypes p) hclo_ok).

(* the kinds of the stored values are those of the bindings of the context suffix *)
Lemma suffix_kinds rest args he0 fsE hs s sp i b en :
  hrel (rest ++ args) (he0 ++ fsE) hs s sp -> List.length he0 = List.length rest ->
  nth_error args i = Some b -> nth_error fsE i = Some en -> chi_of (h_val en) = bchi b /\ ty_of (h_val en) = bty b /\ idn (h_id en) = idn (bvar b).
Proof.
  intros R L Hb He. destruct en as [[x v] q].
  destruct (hrel_vals_app (ptypes p) hclo_ok rest args he0 fsE hs s sp i x v q R L He) as (b' & Hb' & V).
  assert (b' = b) by congruence. subst b'. cbn [h_val h_id fst snd].
  assert (EI : idn x = idn (bvar b)).
  { destruct (henv_ctx_nth (rest ++ args) (he0 ++ fsE) (List.length rest + i) x v q (hr_ids R)) as (b0 & Hb0 & E0).
    - rewrite nth_error_app2 by lia. replace (List.length rest + i - List.length he0)%nat with i by lia. exact He.
    - rewrite nth_error_app2 in Hb0 by lia. rewrite Nat.add_comm, Nat.add_sub in Hb0. congruence. }
  destruct V as [b z q t A B T Lg I64|b v q a t1 t2 A K1 K2 T1 T2 L1 L2 X]; cbn; auto.
Qed.

Lemma tag_in64 d tag k : In d (ptypes p) -> xtor_position (txtors d) tag 0 = Ok k -> in64 (jump_length k).
Proof.
  intros Hd XP. apply xtor_position_lt in XP. pose proof (TAGS d Hd) as T.
  unfold in64, two63, jump_length. lia.
Qed.

Theorem hsim_let c he hs s sp v t tag args next lc code lc' pc he0 fs tn hl fl cl :
  hrel c he hs s sp ->
  lin_check (sigs_of p) c (Let v t tag args next) = true ->
  acs (ptypes p) (Let v t tag args next) c lc = Ok (code, lc') -> code_at im pc code -> labels_at_nh im pc code ->
  ty_name t = Some tn -> AxSem.split_last (List.length args) he = Some (he0, fs) ->
  InvA X86Sem.HEAP_BASE hs (roots he) hl fl cl -> P03 hs ->
  (forall en, In en he -> chi_of (h_val en) = Ext -> h_ptr en = 0) ->
  let res := Heap.alloc_object (map store_ptr fs) hs in
  Heap.frontier (snd res) + 64 <= LIMIT -> Heap.heap (snd res) <> 0 -> Heap.free (snd res) <> 0 ->
  let c0 := firstn (List.length c - List.length args) c in
  exists c12 c3 lc1 s',
    code = c12 ++ c3 /\ acs (ptypes p) next (c0 ++ [mkb v Prd t]) lc1 = Ok (c3, lc') /\
    lin_check (sigs_of p) (c0 ++ [mkb v Prd t]) next = true /\
    exec_to im pc s (padd pc (List.length c12)) s' /\
    hrel (c0 ++ [mkb v Prd t]) (he0 ++ [(v, VObj tn tag (map h_val fs), fst res)]) (snd res) s' sp /\ hframe_eq s s' sp.
Proof.
  intros R LC CS CA LA TN SL IA K03 EX res HF HH0 HF0 c0'.
  destruct (cs_let _ _ _ _ _ _ _ _ _ _ CS) as (d & k & rest & arguments & c1 & lc1 & tmpv & c3 & LT & XP & BS & XS & TV & NX & ->).
  apply bsplit_last_app in BS as [-> LA1]. apply asplit_last_app in SL as [-> LF].
  apply ty_name_Decl in TN. subst t.
  pose proof (hrel_length R) as LEN. rewrite !app_length in LEN.
  assert (L0 : List.length he0 = List.length rest) by lia.
  (* the typing side *)
  cbn [lin_check] in LC. apply andb_true_iff in LC as [_ LC].
  destruct (split_lastn (List.length args) (rest ++ arguments)) as [[c0 tl]|] eqn:SPL; [|discriminate].
  apply split_lastn_Some in SPL as [SPE SPLn].
  apply app_inv_len in SPE as [<- <-]; [|apply (f_equal (@List.length binding)) in SPE; rewrite !app_length in SPE; lia].
  apply andb_true_iff in LC as [LC LCn]. apply andb_true_iff in LC as [CM AO].
  apply ctx_match_Prop in CM as [IDS SKT].
  unfold args_ok in AO. destruct (lookup_xtor (sigs_of p) (Decl tn) tag) as [sg|] eqn:LX; [|discriminate].
  apply sig_match_iff in AO.
  pose proof (lin_nodup _ _ _ LCn) as NDn.
  (* the declaration *)
  unfold lookup_type in LT. destruct (find (fun d0 => ident_eqb (tname d0) tn) (ptypes p)) as [d0|] eqn:FD; [|discriminate].
  inversion LT; subst d0. clear LT.
  assert (IN64 : in64 (jump_length k)).
  { apply (tag_in64 d tag k); [|exact XP]. apply find_some in FD. apply FD. }
  (* the constructor and the kinds of its fields *)
  assert (TW : HRep.tag_word (ptypes p) jump_length tn tag (map h_val fs) (jump_length k)).
  { unfold lookup_xtor, type_xtors in LX. cbn [sigs_of sg_types] in LX. rewrite FD in LX.
    destruct (find (fun x => ident_eqb (xname x) tag) (txtors d)) as [x|] eqn:FX; [|discriminate]. inversion LX; subst sg.
    exists d, k, x. repeat split; auto.
    apply same_kinds_intro.
    - rewrite map_length. apply same_kt_length in AO. lia.
    - intros i f b Hf Hb. rewrite nth_error_map in Hf. destruct (nth_error fs i) as [en|] eqn:He; [|discriminate].
      cbn in Hf. inversion Hf; subst f.
      assert (Li : (i < List.length arguments)%nat) by (apply nth_error_Some_lt in He; lia).
      destruct (nth_error arguments i) as [ba|] eqn:Ha; [|apply nth_error_None in Ha; lia].
      destruct (suffix_kinds rest arguments he0 fs hs s sp i ba en R L0 Ha He) as (K1 & K2 & _).
      destruct (same_kt_nth _ _ i ba SKT Ha) as (b1 & Hb1 & K3 & K4).
      destruct (same_kt_nth _ _ i b1 AO Hb1) as (b2 & Hb2 & K5 & K6).
      assert (b2 = b) by congruence. subst b2. split; congruence. }
  assert (EC0 : c0' = rest) by (unfold c0'; apply firstn_app_exact; exact LA1). rewrite EC0. clear EC0 c0'.
  rewrite app_assoc in CA, LA. apply code_at_app in CA as [CA12 _]. apply labels_at_nh_app in LA as [LA12 _].
  apply labels_at_nh_app in LA12 as [LA1' _].
  destruct (hsim_alloc im (ptypes p) hclo_ok rest arguments he0 fs hs s sp lc c1 lc1 (a_load_immediate tmpv (jump_length k)) pc hl fl cl
              v Prd (Decl tn) (VObj tn tag (map h_val fs)) (jump_length k) tmpv R L0 IA K03
              ltac:(intros en Hen; apply EX; apply in_app_iff; now right) XS CA12 LA1' HF HH0 HF0 NDn ltac:(discriminate) eq_refl eq_refl TV
              ltac:(intros L; apply local_load_immediate, loc_ok_lok, L)
              (fun s1 F1 O => a64_load_immediate_ok im s1 sp tmpv (jump_length k) F1 O IN64)
              ltac:(intros w XF; constructor; [exact TW|exact XF])) as (s2 & X & R2 & FE).
  exists (c1 ++ a_load_immediate tmpv (jump_length k)), c3, lc1, s2.
  split; [now rewrite app_assoc|]. split; [exact NX|]. split; [exact LCn|]. split; [exact X|]. split; [exact R2|exact FE].
Qed.

Theorem hsim_create c he hs s sp v t env cls next lc code lc' pc he0 cap tn ce hl fl cl :
  hrel c he hs s sp ->
  lin_check (sigs_of p) c (Create v t (Some env) cls next) = true ->
  skipn (List.length c - List.length env) c = env -> ann_clauses_cr env cls = true -> clauses_lits cls = true ->
  acs (ptypes p) (Create v t (Some env) cls next) c lc = Ok (code, lc') -> code_at im pc code -> labels_at_nh im pc code ->
  (forall lcx, hash_name (type_label t lcx) = false) ->
  ty_name t = Some tn -> AxSem.split_last (List.length env) he = Some (he0, cap) ->
  bind (vars env) (map h_val cap) = Some ce ->
  InvA X86Sem.HEAP_BASE hs (roots he) hl fl cl -> P03 hs ->
  (forall en, In en he -> chi_of (h_val en) = Ext -> h_ptr en = 0) ->
  let res := Heap.alloc_object (map store_ptr cap) hs in
  Heap.frontier (snd res) + 64 <= LIMIT -> Heap.heap (snd res) <> 0 -> Heap.free (snd res) <> 0 ->
  let c0 := firstn (List.length c - List.length env) c in
  exists c12 c3 lc2 lc3 rest' s',
    code = c12 ++ c3 ++ rest' /\ acs (ptypes p) next (c0 ++ [mkb v Cns t]) lc2 = Ok (c3, lc3) /\
    lin_check (sigs_of p) (c0 ++ [mkb v Cns t]) next = true /\
    exec_to im pc s (padd pc (List.length c12)) s' /\
    hrel (c0 ++ [mkb v Cns t]) (he0 ++ [(v, VClo tn cls ce, fst res)]) (snd res) s' sp /\ hframe_eq s s' sp.
Proof.
  intros R LC ANN ANC LITC CS CA LA NHL TN SL BD IA K03 EX res HF HH0 HF0 c0'.
  destruct (cs_create _ _ _ _ _ _ _ _ _ _ CS) as (rest & cenv & c1 & lc1 & tmpv & c3 & lc3 & c5 & BS & XS & TV & NX & CC & ->).
  apply bsplit_last_app in BS as [-> LA1]. apply asplit_last_app in SL as [-> LF].
  apply ty_name_Decl in TN. subst t.
  pose proof (hrel_length R) as LEN. rewrite !app_length in LEN.
  assert (L0 : List.length he0 = List.length rest) by lia.
  assert (ECE : cenv = env).
  { rewrite app_length, LA1 in ANN. replace (List.length rest + List.length env - List.length env)%nat with (List.length rest) in ANN by lia.
    rewrite skipn_app, skipn_all, Nat.sub_diag in ANN. exact ANN. }
  subst cenv.
  (* the typing side *)
  rewrite lin_check_create in LC. apply andb_true_iff in LC as [_ LC].
  destruct (split_lastn (List.length env) (rest ++ env)) as [[c0 tl]|] eqn:SPL; [|discriminate].
  apply split_lastn_Some in SPL as [SPE SPLn].
  apply app_inv_len in SPE as [<- <-]; [|apply (f_equal (@List.length binding)) in SPE; rewrite !app_length in SPE; lia].
  apply andb_true_iff in LC as [LC LCn]. apply andb_true_iff in LC as [LC LCc]. apply andb_true_iff in LC as [_ CO].
  pose proof (lin_nodup _ _ _ LCn) as NDn.
  set (fresh := type_label (Decl tn) (lc1 + 1)%N) in *.
  pose proof CA as CA0. pose proof LA as LA0. rewrite app_assoc in CA0.
  apply code_at_app in CA0 as [CA12 _]. apply labels_at_nh_app in LA0 as [LA1' _].
  apply code_at_app in CA as [_ CA]. apply labels_at_nh_app in LA as [_ LA].
  apply code_at_app in CA as [_ CA]. apply labels_at_nh_app in LA as [_ LA].
  apply code_at_app in CA as [_ CA]. apply labels_at_nh_app in LA as [_ LA].
  (* the label of the closure *)
  set (P := c1 ++ a_load_label tmpv fresh ++ c3).
  set (pcl := padd pc (List.length P)).
  assert (CAL : code_at im pcl (([LAB fresh] ++ table_or_nil cls fresh) ++ c5)).
  { unfold pcl, P. rewrite !app_length, !padd_add. exact CA. }
  assert (LAL : labels_at_nh im pcl (([LAB fresh] ++ table_or_nil cls fresh) ++ c5)).
  { unfold pcl, P. rewrite !app_length, !padd_add. exact LA. }
  assert (CL0 : PM.find pcl (code im) = Some (LAB fresh)).
  { rewrite <- app_assoc in CAL. cbn [app] in CAL. apply code_at_cons in CAL as [X _]. exact X. }
  destruct (io_addr im IMG pcl _ CL0) as (a & AL & GE).
  assert (FL : find_label (labels im) fresh = Some pcl).
  { rewrite <- app_assoc in LAL. cbn [app] in LAL. rewrite (LAL O fresh eq_refl (NHL _)). reflexivity. }
  pose proof (label_addr_at im fresh pcl a FL AL) as LAD.
  rewrite clauses_code_gclauses in CC.
  (* the closure *)
  assert (KIN : forall i b w, nth_error env i = Some b -> nth_error (map h_val cap) i = Some w -> chi_of w = bchi b /\ ty_of w = bty b).
  { intros i b w Hb Hw. rewrite nth_error_map in Hw. destruct (nth_error cap i) as [en|] eqn:He; [|discriminate].
    cbn in Hw. inversion Hw; subst w. destruct (suffix_kinds rest env he0 cap hs s sp i b en R L0 Hb He) as (K1 & K2 & _). auto. }
  destruct (ctx_of_env_bind env (map h_val cap) ce BD KIN) as [ECTX ESND].
  assert (CLO : hclo_ok a tn cls (HRep.ctx_of_env ce)).
  { rewrite ECTX. split; [exact CO|]. split; [split; [unfold CODE_BASE in GE; lia|exact (SMALL _ _ AL)]|].
    intros k cl0 Hk.
    destruct (dispatch_layout_land im IMG (ptypes p) (fun cx lc0 => a_load env cx lc0) (fun cx => cx ++ env) pcl fresh cls c5 lc3 lc' a
                CAL LAL (NHL _) CC AL k cl0 Hk (fun _ => fwd_land im IMG FWD pcl _ a CL0 AL)) as (i & pcc & lcl & cl1 & lcb & cb & lcb' & IX & (pca & PA) & ARR & _ & LD & BD' & CAb & LAb).
    exists i, pcc, lcl, cl1, lcb, cb, lcb'. split; [exact IX|]. split; [exact (SMALL _ _ PA)|]. split; [exact ARR|].
    split; [exact LD|]. split; [exact BD'|]. split; [exact CAb|]. split; [exact LAb|].
    split; [|split].
    - unfold lin_clauses_cr in LCc. rewrite forallb_forall in LCc. apply LCc. eapply nth_error_In; eauto.
    - unfold ann_clauses_cr in ANC. rewrite forallb_forall in ANC. apply ANC. eapply nth_error_In; eauto.
    - unfold clauses_lits in LITC. rewrite forallb_forall in LITC. apply LITC. eapply nth_error_In; eauto. }
  assert (EC0 : c0' = rest) by (unfold c0'; apply firstn_app_exact; exact LA1). rewrite EC0. clear EC0 c0'.
  destruct (hsim_alloc im (ptypes p) hclo_ok rest env he0 cap hs s sp lc c1 lc1 (a_load_label tmpv fresh) pc hl fl cl
              v Cns (Decl tn) (VClo tn cls ce) a tmpv R L0 IA K03
              ltac:(intros en Hen; apply EX; apply in_app_iff; now right) XS CA12 LA1' HF HH0 HF0 NDn ltac:(discriminate) eq_refl eq_refl TV
              ltac:(intros L; apply local_load_label, loc_ok_lok, L)
              (fun s1 F1 O => a64_load_label_ok im s1 sp tmpv fresh a F1 O LAD)
              ltac:(intros w XF; constructor; [exact CLO|rewrite ESND; exact XF])) as (s2 & X & R2 & FE).
  exists (c1 ++ a_load_label tmpv fresh), c3, (lc1 + 1)%N, lc3, (([LAB fresh] ++ table_or_nil cls fresh) ++ c5), s2.
  split; [now rewrite <- !app_assoc|]. split; [exact NX|]. split; [exact LCn|]. split; [exact X|]. split; [exact R2|exact FE].
Qed.
End HB.
