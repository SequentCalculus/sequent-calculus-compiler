(* C17: label-counter independence of the three code generators.
   [shift_labels]: the renaming of generated labels lab<k>, <Type>_<k>, <Type>_<k>_<Xtor> (k > c1) to
   the number k - c1 + c2; definition labels and `cleanup` are fixed.  The renaming is a FUNCTION on
   label texts only where the texts can be decoded (LabelStrings.decode): under the name-digits guard
   of C14.  [translate_shift]: `translate` started at counter c2 = shift_labels (translate started
   at c1), same errors, final counter shifted.  Hence [normal_form]: renumbering both outputs to
   base 0 gives identical code - the comparison the determinism check makes after renumbering. *)
From Coq Require Import List ZArith NArith String Ascii Bool Lia.
From SCC Require Import Base.Sexp Lang.AxSyn Model.ParMoves Model.Backend Model.X86 Model.A64 Model.RV
  Sem.X86Wf Sem.A64Wf Sem.RVWf Sem.LabelGuard
  Proof.LabelStrings Proof.LabelGen Proof.LabelShift Proof.LabelsX86 Proof.LabelsA64 Proof.LabelsRV
  Proof.ShiftX86 Proof.ShiftA64 Proof.ShiftRV Proof.LabelThms.
Import ListNotations.
Local Open Scope string_scope.
Local Open Scope list_scope.

(* the guard: as labels_guard of C14, and calls go to lower-case names; which of the two decoders applies *)
Definition renaming_guard_types (ds : list def) : bool := shift_guard_defs ty_ok all_true ds.
Definition renaming_guard_xtors (ds : list def) : bool := shift_guard_defs all_true xtor_ok ds.
Definition renaming_guard (ds : list def) : bool := renaming_guard_types ds || renaming_guard_xtors ds.

Definition renumber (c1 c2 : N) (k : N) : N := (k - c1 + c2)%N.
Definition rename_label (ds : list def) (c1 c2 : N) : string -> string :=
  if renaming_guard_types ds then rho cut_first (renumber c1 c2) else rho cut_last (renumber c1 c2).

Section Generic.
Context {Code Temp : Type} (B : backend Code Temp) (cdefs crefs : Code -> list string).
Hypothesis LO : labels_ok B cdefs crefs.
Variable cmap : (string -> string) -> Code -> Code.
Hypothesis SO : forall rho a b, (forall k, (a < k)%N -> rho (pr (GLab k)) = pr (GLab (sh a b k))) -> shift_ok B cmap rho a b.

Definition shift_labels (ds : list def) (c1 c2 : N) (code : list Code) : list Code :=
  map (cmap (rename_label ds c1 c2)) code.
Definition shift_result (ds : list def) (c1 c2 : N) (r : res (list Code * N)) : res (list Code * N) :=
  match r with Ok (c, lc') => Ok (shift_labels ds c1 c2 c, renumber c1 c2 lc') | Err m => Err m end.

Lemma shift_with (r : string -> string) okS okX types ds c1 c2 :
  (forall g, in_univ okS okX g -> is_gen g = true -> r (pr g) = pr (with_key (sh c1 c2) g)) ->
  (forall s, lower_first s = true -> r (s ++ "_")%string = (s ++ "_")%string) ->
  r "cleanup" = "cleanup" ->
  shift_guard_defs okS okX ds = true ->
  translate B types ds c2
  = match translate B types ds c1 with Ok (c, lc') => Ok (map (cmap r) c, renumber c1 c2 lc') | Err m => Err m end.
Proof.
  intros RG RD RC G. assert (E : c2 = sh c1 c2 c1) by (unfold sh; lia). rewrite E at 1.
  assert (RL : forall k, (c1 < k)%N -> r (pr (GLab k)) = pr (GLab (sh c1 c2 k))) by (intros k _; apply (RG (GLab k) I eq_refl)).
  rewrite (translate_shift_gen B cdefs crefs LO cmap r c1 c2 (SO r c1 c2 RL) okS okX (fun g U GG _ => RG g U GG) RD RC types ds c1 G (N.le_refl c1)).
  unfold shr, shp. destruct (translate B types ds c1) as [[c l]|m]; reflexivity.
Qed.

Theorem translate_shift types ds c1 c2 :
  renaming_guard ds = true ->
  translate B types ds c2 = shift_result ds c1 c2 (translate B types ds c1).
Proof.
  unfold renaming_guard, shift_result, shift_labels, rename_label. intros G.
  destruct (renaming_guard_types ds) eqn:GT.
  - apply (shift_with _ ty_ok all_true); [| | |exact GT].
    + intros g U GG. apply (rho_gen ty_ok all_true cut_first); try assumption.
      * intros T k H. apply decode_first_tl; exact H.
      * intros T k X H _. apply decode_first_cl; exact H.
    + intros s H. apply rho_def. exact H.
    + reflexivity.
  - cbn [orb] in G. apply (shift_with _ all_true xtor_ok); [| | |exact G].
    + intros g U GG. apply (rho_gen all_true xtor_ok cut_last); try assumption.
      * intros T k _. apply decode_last_tl.
      * intros T k X _ H. apply decode_last_cl; exact H.
    + intros s H. apply rho_def. exact H.
    + reflexivity.
Qed.

(* renumbering to base 0 is a normal form: the outputs of two runs started at different counters
   coincide after it (errors included) *)
Definition normalize (ds : list def) (c : N) (r : res (list Code * N)) : res (list Code * N) := shift_result ds c 0 r.
Corollary normal_form types ds c1 c2 :
  renaming_guard ds = true ->
  normalize ds c1 (translate B types ds c1) = normalize ds c2 (translate B types ds c2).
Proof.
  intros G. unfold normalize. rewrite <- !(translate_shift types ds _ 0 G). reflexivity.
Qed.

Theorem compile_shift p c1 c2 :
  renaming_guard (pdefs p) = true ->
  compile B p c2 = match compile B p c1 with
                   | Ok (c, n, lc') => Ok (shift_labels (pdefs p) c1 c2 c, n, renumber c1 c2 lc')
                   | Err m => Err m
                   end.
Proof.
  intros G. unfold compile. destruct (pdefs p) as [|d0 ds] eqn:E; [reflexivity|]. rewrite <- E in *.
  rewrite (translate_shift (ptypes p) (pdefs p) c1 c2 G). unfold shift_result.
  destruct (translate B (ptypes p) (pdefs p) c1) as [[c l]|m]; reflexivity.
Qed.
End Generic.

Theorem x86_translate_shift types ds c1 c2 :
  renaming_guard ds = true ->
  translate x86_backend types ds c2 = shift_result xmap ds c1 c2 (translate x86_backend types ds c1).
Proof. apply (translate_shift x86_backend xdefs X86Wf.referenced x86_labels_ok xmap (fun r a b H => x86_shift_ok r a b H)). Qed.
Theorem a64_translate_shift types ds c1 c2 :
  renaming_guard ds = true ->
  translate a64_backend types ds c2 = shift_result amap ds c1 c2 (translate a64_backend types ds c1).
Proof. apply (translate_shift a64_backend A64Wf.all_defs A64Wf.referenced a64_labels_ok amap (fun r a b H => a64_shift_ok r a b H)). Qed.
Theorem rv_translate_shift types ds c1 c2 :
  renaming_guard ds = true ->
  translate rv_backend types ds c2 = shift_result rmap ds c1 c2 (translate rv_backend types ds c1).
Proof. apply (translate_shift rv_backend RVWf.all_defs RVWf.referenced rv_labels_ok rmap (fun r a b H => rv_shift_ok r a b H)). Qed.

(* the complete routines: preamble, set-up and cleanup carry no generated label *)
Lemma rename_asm_main ds c1 c2 : rename_label ds c1 c2 "asm_main" = "asm_main".
Proof. unfold rename_label. destruct (renaming_guard_types ds); reflexivity. Qed.
Lemma rename_cleanup ds c1 c2 : rename_label ds c1 c2 "cleanup" = "cleanup".
Proof. unfold rename_label. destruct (renaming_guard_types ds); reflexivity. Qed.
Lemma rn_args_x86 f n x : X86.move_arguments n = Ok x -> map (xmap f) x = x.
Proof. intros E. exact (rn_nolab xmap f LabelsX86.nolab (ShiftX86.nolab_fixed f) x (nolab_args_x86 n x E)). Qed.
Theorem x86_compile_shift p c1 c2 :
  renaming_guard (pdefs p) = true ->
  x86_compile p c2 = match x86_compile p c1 with
                     | Ok (r, n, lc') => Ok (shift_labels xmap (pdefs p) c1 c2 r, n, renumber c1 c2 lc')
                     | Err m => Err m
                     end.
Proof.
  intros G. unfold x86_compile, x86_compile_with.
  rewrite (compile_shift x86_backend xdefs X86Wf.referenced x86_labels_ok xmap (fun r a b H => x86_shift_ok r a b H) p c1 c2 G).
  destruct (compile x86_backend p c1) as [[[is n] l]|m]; cbn [rbind]; [|reflexivity].
  unfold into_x86_64_routine, X86.setup. destruct (X86.move_arguments n) as [s|m] eqn:E; cbn [rbind]; [|reflexivity].
  unfold shift_labels. rewrite !map_app, (rn_args_x86 _ _ _ E). cbn [map xmap X86.preamble X86.cleanup].
  rewrite rename_asm_main, rename_cleanup. reflexivity.
Qed.
Lemma rn_args_a64 f n x : A64.move_arguments n = Ok x -> map (amap f) x = x.
Proof. intros E. exact (rn_nolab amap f LabelsA64.nolab (ShiftA64.nolab_fixed f) x (nolab_args_a64 n x E)). Qed.
Theorem a64_compile_shift p c1 c2 :
  renaming_guard (pdefs p) = true ->
  a64_compile p c2 = match a64_compile p c1 with
                     | Ok (r, n, lc') => Ok (shift_labels amap (pdefs p) c1 c2 r, n, renumber c1 c2 lc')
                     | Err m => Err m
                     end.
Proof.
  intros G. unfold a64_compile, a64_compile_with. change (a64_backend_with (fun _ => [])) with a64_backend.
  rewrite (compile_shift a64_backend A64Wf.all_defs A64Wf.referenced a64_labels_ok amap (fun r a b H => a64_shift_ok r a b H) p c1 c2 G).
  destruct (compile a64_backend p c1) as [[[is n] l]|m]; cbn [rbind]; [|reflexivity].
  unfold into_aarch64_routine, A64.setup. destruct (A64.move_arguments n) as [s|m] eqn:E; cbn [rbind]; [|reflexivity].
  unfold shift_labels. rewrite !map_app, (rn_args_a64 _ _ _ E). cbn [map amap A64.preamble A64.cleanup].
  rewrite rename_asm_main, rename_cleanup. reflexivity.
Qed.
Theorem rv_compile_shift p c1 c2 :
  renaming_guard (pdefs p) = true ->
  rv_compile p c2 = match rv_compile p c1 with
                    | Ok (r, n, lc') => Ok (shift_labels rmap (pdefs p) c1 c2 r, n, renumber c1 c2 lc')
                    | Err m => Err m
                    end.
Proof.
  intros G. unfold rv_compile. destruct (prog_has_print p); [reflexivity|].
  apply (compile_shift rv_backend RVWf.all_defs RVWf.referenced rv_labels_ok rmap (fun r a b H => rv_shift_ok r a b H) p c1 c2 G).
Qed.

(* without the name-digits guard no FUNCTION on label texts relates the two outputs *)
Definition collide_defs : list def :=
  let v : ident := ("v", 0%N) in
  [mkd ("main", 0%N) []
     (Switch v (Decl ("Aa", 0%N))
        [(("Bx_2_Cy", 0%N), [], Switch v (Decl ("Aa_1_Bx", 0%N)) [(("Cy", 0%N), [], Call ("main", 0%N) [])])])].
Theorem translate_shift_refuted :
  shift_guard_defs all_true all_true collide_defs = true /\
  forall f : string -> string,
    match translate x86_backend [] collide_defs 0, translate x86_backend [] collide_defs 10 with
    | Ok (c0, _), Ok (c10, _) => map (xmap f) c0 <> c10
    | _, _ => False
    end.
Proof.
  split; [reflexivity|]. intros f.
  set (r0 := translate x86_backend [] collide_defs 0). vm_compute in r0.
  set (r10 := translate x86_backend [] collide_defs 10). vm_compute in r10. subst r0 r10. cbn [map xmap].
  intros E. injection E as _ _ E1 _ E2 _. rewrite E1 in E2. discriminate E2.
Qed.
(* inside the guard: the same program with neutral names, compiled at counters 0 and 10 *)
Definition neutral_defs : list def :=
  let v : ident := ("v", 0%N) in
  [mkd ("main", 0%N) []
     (Switch v (Decl ("Aa", 0%N))
        [(("Bx", 0%N), [], Switch v (Decl ("List[i64]", 0%N)) [(("Cy", 0%N), [], Call ("main", 0%N) [])])])].
Example renaming_guard_satisfiable :
  renaming_guard neutral_defs = true /\
  LabelGen.defs xdefs (match translate x86_backend [] neutral_defs 0 with Ok (c, _) => c | Err _ => [] end)
    = ["main_"; "Aa_1"; "Aa_1_Bx"; "List_i64_2"; "List_i64_2_Cy"] /\
  LabelGen.defs xdefs (match translate x86_backend [] neutral_defs 10 with Ok (c, _) => c | Err _ => [] end)
    = ["main_"; "Aa_11"; "Aa_11_Bx"; "List_i64_12"; "List_i64_12_Cy"] /\
  map (rename_label neutral_defs 0 10) ["main_"; "Aa_1"; "Aa_1_Bx"; "List_i64_2"; "List_i64_2_Cy"; "cleanup"; "lab7"]
    = ["main_"; "Aa_11"; "Aa_11_Bx"; "List_i64_12"; "List_i64_12_Cy"; "cleanup"; "lab17"].
Proof. vm_compute. repeat split. Qed.

(* The comparison of the run-time check.
   harness/src/cmd_det.rs normalize_labels replaces the numbers of generated labels by the index of their
   first occurrence (it cannot know the counter value a run started from).  [canon] is that numbering on
   a sequence of numbers; it is invariant under every renaming that is injective on the sequence, in
   particular under k |-> k - c1 + c2 on numbers above c1. *)
Fixpoint index_of (k : N) (seen : list N) : option nat :=
  match seen with [] => None | x :: r => if N.eqb k x then Some O else option_map S (index_of k r) end.
Fixpoint canon_aux (seen : list N) (l : list N) : list nat :=
  match l with
  | [] => []
  | k :: r => match index_of k seen with
              | Some i => i :: canon_aux seen r
              | None => List.length seen :: canon_aux (seen ++ [k]) r
              end
  end.
Definition canon (l : list N) : list nat := canon_aux [] l.

Lemma index_of_map f k seen :
  (forall x, In x seen -> f k = f x -> k = x) -> index_of (f k) (map f seen) = index_of k seen.
Proof.
  induction seen as [|x r IH]; intros I; [reflexivity|]. cbn [map index_of].
  destruct (N.eqb k x) eqn:E.
  - apply N.eqb_eq in E. subst. rewrite N.eqb_refl. reflexivity.
  - destruct (N.eqb (f k) (f x)) eqn:E'.
    + apply N.eqb_eq in E'. apply I in E'; [|left; reflexivity]. apply N.eqb_neq in E. contradiction.
    + rewrite IH; [reflexivity|]. intros y Hy. apply I. right. exact Hy.
Qed.
Lemma canon_aux_map f : forall l seen,
  (forall x y, In x (seen ++ l) -> In y (seen ++ l) -> f x = f y -> x = y) ->
  canon_aux (map f seen) (map f l) = canon_aux seen l.
Proof.
  induction l as [|k r IH]; intros seen I; [reflexivity|]. cbn [map canon_aux].
  rewrite index_of_map.
  - destruct (index_of k seen).
    + f_equal. apply IH. intros x y Hx Hy. apply I; apply in_app_or in Hx, Hy; apply in_or_app; (destruct Hx; [left|right; right]; assumption) || idtac;
        destruct Hy; [left|right; right]; assumption.
    + rewrite map_length. f_equal. replace (map f seen ++ [f k]) with (map f (seen ++ [k])) by (rewrite map_app; reflexivity).
      apply IH. intros x y Hx Hy. apply I; rewrite <- app_assoc in Hx, Hy; assumption.
  - intros x Hx. apply I; apply in_or_app; [right; left; reflexivity|left; exact Hx].
Qed.
Theorem canon_invariant f l :
  (forall x y, In x l -> In y l -> f x = f y -> x = y) -> canon (map f l) = canon l.
Proof. intros I. apply (canon_aux_map f l []). exact I. Qed.
Lemma renumber_injective c1 c2 x y : (c1 <= x)%N -> (c1 <= y)%N -> renumber c1 c2 x = renumber c1 c2 y -> x = y.
Proof. unfold renumber. lia. Qed.

(* the numbers of the generated labels in a sequence of label texts *)
Section Numbers.
Variables okS okX : string -> bool.
Variable cut : string -> option (string * string).
Hypothesis cut_tl : forall T k, okS T = true -> decode_with cut (pr (GTL T k)) = Some (GTL T k).
Hypothesis cut_cl : forall T k X, okS T = true -> okX X = true -> decode_with cut (pr (GCL T k X)) = Some (GCL T k X).
Definition numbers (ls : list string) : list N :=
  flat_map (fun l => match decode cut l with Some g => [key g] | None => [] end) ls.
(* labels a program in the universe can emit: generated ones, definition labels, cleanup *)
Definition known (l : string) : Prop :=
  (exists g, l = pr g /\ in_univ okS okX g) \/ l = "cleanup".
Lemma numbers_rename f ls :
  (forall l, In l ls -> known l) -> numbers (map (rho cut f) ls) = map f (numbers ls).
Proof.
  induction ls as [|l r IH]; intros K; [reflexivity|]. cbn [map numbers flat_map]. fold (numbers (map (rho cut f) r)). fold (numbers r).
  rewrite map_app, IH by (intros x Hx; apply K; right; exact Hx). f_equal.
  destruct (K l (or_introl eq_refl)) as [(g & -> & U)| ->].
  - destruct (is_gen g) eqn:G.
    + rewrite (rho_gen okS okX cut cut_tl cut_cl f g U G).
      assert (U' : in_univ okS okX (with_key f g)) by (destruct g; exact U).
      assert (G' : is_gen (with_key f g) = true) by (destruct g; try discriminate; reflexivity).
      rewrite (decode_pr okS okX cut cut_tl cut_cl _ U' G'), (decode_pr okS okX cut cut_tl cut_cl _ U G).
      destruct g; try discriminate; reflexivity.
    + destruct g; try discriminate. cbn [in_univ] in U. cbn [pr]. rewrite (rho_def cut f name U).
      change (name ++ "_")%string with (pr (GDef name)). rewrite (decode_def cut name U). reflexivity.
  - reflexivity.
Qed.
(* hence: first-occurrence renumbering cannot distinguish a run from its shifted copy *)
Theorem canon_numbers_shift c1 c2 ls :
  (forall l, In l ls -> known l) -> (forall k, In k (numbers ls) -> (c1 <= k)%N) ->
  canon (numbers (map (rho cut (renumber c1 c2)) ls)) = canon (numbers ls).
Proof.
  intros K B. rewrite (numbers_rename _ _ K). apply canon_invariant.
  intros x y Hx Hy. apply renumber_injective; apply B; assumption.
Qed.
End Numbers.
