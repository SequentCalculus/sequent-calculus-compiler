(* Proof/ShrinkRel.v (C04, fragment 2) - the simulation relation between the focused-Core machine
   (Sem/CoreSem.v) and the named AxCut machine (Sem/AxSem.v), for the WHOLE language.

   A typed, step-indexed relation [vrel n chi ty cv av] between a Core machine value and an AxCut
   value, following the chirality collapse of shrink_binding:
     prd i64        PInt z               ~  VInt z
     prd data T     PCtor K args         ~  VObj _ K fields        (fields related at K's signature)
     cns codata T   KDtor D args         ~  VObj _ D fields
     cns i64        any consumer value   ~  VClo: invoking Ret(z) simulates the consumer meeting z
     cns data T     any consumer value   ~  VClo: invoking K(fields) simulates it meeting K(args)
     prd codata T   any producer value   ~  VClo: invoking D(fields) simulates it meeting D(args)
   "simulates" = [beh k]: whenever the Core machine, continued for k steps, ends with exit or undefined
   arithmetic, the AxCut machine reaches the same observation.  The closure cases hold for all k < n
   (so the relation is downward closed in n). *)
From Coq Require Import List ZArith NArith String Bool Lia.
From SCC Require Import Proof.CoreInd.
From SCC Require Import Base.Sexp Lang.SynUtil Lang.CoreSyn Lang.AxSyn Sem.AxSem Sem.FsCheck Model.Shrink
     Proof.ShrinkProof Proof.ShrinkSem Proof.ShrinkRn.
From SCC Require Sem.CoreSem.
Import ListNotations.
Open Scope list_scope.

Notation bval := CoreSem.bval.
Notation BP := CoreSem.BP.
Notation BK := CoreSem.BK.
Notation PInt := CoreSem.PInt.
Notation PCtor := CoreSem.PCtor.
Notation KDtor := CoreSem.KDtor.
Notation cenv := CoreSem.cenv.

Section Rel.
Variable p : fsprog.
Variable q : prog.
Notation P := (CoreSem.fs2c_prog p).
Notation data := (fspdata p).
Notation codata := (fspcodata p).

Definition cont (n : nat) (sr : CoreSem.sres) (out : prints) : obs :=
  match sr with
  | CoreSem.SNext c => CoreSem.crun n P c out
  | CoreSem.SPrint nl z c => CoreSem.crun n P c ((nl, z) :: out)
  | CoreSem.SHalt o => finish out o
  end.
Lemma crun_cont : forall n c out, CoreSem.crun (S n) P c out = cont n (CoreSem.cstep P c) out.
Proof. reflexivity. Qed.
Definition beh (n : nat) (sr : CoreSem.sres) (ae : env) (t : stmt) : Prop :=
  forall out r, cont n sr out = r -> good r -> exists m, exec_named m q ae t out = r.

Inductive vrelF (R : cchi -> cty -> bval -> value -> Prop) : cchi -> cty -> bval -> value -> Prop :=
| VR_int : forall z, vrelF R CPrd CI64 (BP (PInt z)) (VInt z)
| VR_ctor : forall T d K sg args fs tn,
    is_codata codata (CDecl T) = false -> find_decl data T = Some d -> find_cxtor d K = Some sg ->
    vrelsF R (cxargs sg) args fs -> vrelF R CPrd (CDecl T) (BP (PCtor K args)) (VObj tn K fs)
| VR_dtor : forall T d D sg args fs tn,
    is_codata codata (CDecl T) = true -> find_decl codata T = Some d -> find_cxtor d D = Some sg ->
    vrelsF R (cxargs sg) args fs -> vrelF R CCns (CDecl T) (BK (KDtor D args)) (VObj tn D fs)
| VR_clo : forall c ty cv tn cls ce,
    R c ty cv (VClo tn cls ce) -> vrelF R c ty cv (VClo tn cls ce)
with vrelsF (R : cchi -> cty -> bval -> value -> Prop) : cctx -> list bval -> list value -> Prop :=
| VRs_nil : vrelsF R [] [] []
| VRs_cons : forall b sg cv cvs av avs,
    vrelF R (cbchi b) (cbty b) cv av -> vrelsF R sg cvs avs -> vrelsF R (b :: sg) (cv :: cvs) (av :: avs).
Scheme vrelF_mut := Induction for vrelF Sort Prop
with vrelsF_mut := Induction for vrelsF Sort Prop.

Lemma vrelF_mono_all : forall (R R' : cchi -> cty -> bval -> value -> Prop),
  (forall c ty cv av, R c ty cv av -> R' c ty cv av) ->
  (forall c ty cv av, vrelF R c ty cv av -> vrelF R' c ty cv av) /\
  (forall sg cvs avs, vrelsF R sg cvs avs -> vrelsF R' sg cvs avs).
Proof.
  intros R R' HR. split.
  - intros c ty cv av H.
    induction H using vrelF_mut with (P0 := fun sg cvs avs _ => vrelsF R' sg cvs avs); try (econstructor; eauto; fail).
  - intros sg cvs avs H.
    induction H using vrelsF_mut with (P := fun c ty cv av _ => vrelF R' c ty cv av); try (econstructor; eauto; fail).
Qed.

(* pointwise relation of argument lists along a signature, for an arbitrary value relation *)
Inductive relsV (V : cchi -> cty -> bval -> value -> Prop) : cctx -> list bval -> list value -> Prop :=
| RV_nil : relsV V [] [] []
| RV_cons : forall b sg cv cvs av avs,
    V (cbchi b) (cbty b) cv av -> relsV V sg cvs avs -> relsV V (b :: sg) (cv :: cvs) (av :: avs).
Lemma relsV_vrelsF : forall R sg cvs avs, relsV (vrelF R) sg cvs avs <-> vrelsF R sg cvs avs.
Proof.
  intros R sg cvs avs. split; intros H; induction H; constructor; auto.
Qed.

(* the message a closure-like Core value of kind (c, ty) understands, the AxCut invocation that
   carries it (tag, fields) and the Core reaction *)
Definition msg (V : cchi -> cty -> bval -> value -> Prop) (c : cchi) (ty : cty) (cv : bval)
           (tag : ident) (fs : list value) (sr : CoreSem.sres) : Prop :=
  match c, ty, cv with
  | CCns, CI64, CoreSem.BK kv =>
      exists z, tag = ret_name /\ fs = [VInt z] /\ sr = CoreSem.interact_val (PInt z) kv
  | CCns, CDecl T, CoreSem.BK kv =>
      is_codata codata ty = false /\
      exists d sg args, find_decl data T = Some d /\ find_cxtor d tag = Some sg /\
        relsV V (cxargs sg) args fs /\ sr = CoreSem.interact_val (PCtor tag args) kv
  | CPrd, CDecl T, CoreSem.BP pv =>
      is_codata codata ty = true /\
      exists d sg args, find_decl codata T = Some d /\ find_cxtor d tag = Some sg /\
        relsV V (cxargs sg) args fs /\ sr = CoreSem.interact_val pv (KDtor tag args)
  | _, _, _ => False
  end.
Definition clo_ok (k : nat) (V : cchi -> cty -> bval -> value -> Prop) (c : cchi) (ty : cty) (cv : bval)
           (cls : list clause) (ce : env) : Prop :=
  forall tag fs sr, msg V c ty cv tag fs sr ->
  exists cl e1, find_clause cls tag = Some cl /\ bind (vars (cl_ctx cl)) fs = Some e1 /\
                beh k sr (e1 ++ ce) (cl_body cl).
Definition is_kind (c : cchi) (ty : cty) (cv : bval) : Prop :=
  match c, ty, cv with
  | CCns, CI64, CoreSem.BK _ => True
  | CCns, CDecl _, CoreSem.BK _ => is_codata codata ty = false
  | CPrd, CDecl _, CoreSem.BP _ => is_codata codata ty = true
  | _, _, _ => False
  end.

Fixpoint cloR (n : nat) (c : cchi) (ty : cty) (cv : bval) (av : value) : Prop :=
  match n with
  | O => is_kind c ty cv
  | S k =>
      match av with
      | VClo _ cls ce => clo_ok k (vrelF (cloR k)) c ty cv cls ce
      | _ => False
      end /\ cloR k c ty cv av
  end.
Definition vrel (n : nat) := vrelF (cloR n).
Definition vrels (n : nat) := vrelsF (cloR n).

Lemma cloR_S : forall n c ty cv av, cloR (S n) c ty cv av -> cloR n c ty cv av.
Proof. intros n c ty cv av [_ H]. exact H. Qed.
Lemma cloR_le : forall n k c ty cv av, k <= n -> cloR n c ty cv av -> cloR k c ty cv av.
Proof. induction 1; [auto|]. intros H1. apply IHle. now apply cloR_S. Qed.
Lemma vrel_le : forall n k c ty cv av, k <= n -> vrel n c ty cv av -> vrel k c ty cv av.
Proof. intros n k c ty cv av Hle. apply vrelF_mono_all. intros. eapply cloR_le; eauto. Qed.
Lemma vrels_le : forall n k sg cvs avs, k <= n -> vrels n sg cvs avs -> vrels k sg cvs avs.
Proof. intros n k sg cvs avs Hle. apply vrelF_mono_all. intros. eapply cloR_le; eauto. Qed.
Lemma cloR_kind : forall n c ty cv av, cloR n c ty cv av -> is_kind c ty cv.
Proof. induction n; intros c ty cv av H; [exact H|]. apply IHn with av. now apply cloR_S. Qed.

Lemma cloR_use : forall n k c ty cv tn cls ce, cloR n c ty cv (VClo tn cls ce) -> k < n ->
  clo_ok k (vrel k) c ty cv cls ce.
Proof.
  induction n; intros k c ty cv tn cls ce H Hk; [lia|].
  destruct H as [H1 H2]. destruct (Nat.eq_dec k n) as [->|Hne]; [exact H1|].
  eapply IHn; eauto. lia.
Qed.
Lemma cloR_intro : forall n c ty cv tn cls ce, is_kind c ty cv ->
  (forall k, k < n -> clo_ok k (vrel k) c ty cv cls ce) -> cloR n c ty cv (VClo tn cls ce).
Proof.
  induction n; intros c ty cv tn cls ce Hk H; [exact Hk|]. split.
  - apply H. lia.
  - apply IHn; auto.
Qed.

(* the Core environment is parallel to the typing context; every NEEDED variable x of the context
   is found under the id of (pi x) on the AxCut side, with a related value; that id is in A *)
Definition erel (n : nat) (need : cident -> Prop) (pi : cident -> ident) (A : list N)
           (G : cctx) (e : cenv) (ae : env) : Prop :=
  Forall2 (fun b ev => fst ev = cbvar b /\
                       (need (cbvar b) -> In (idn (pi (cbvar b))) A /\
                          exists av, lookup ae (idn (pi (cbvar b))) = Some av /\
                                     vrel n (cbchi b) (cbty b) (snd ev) av)) G e.

Lemma erel_weaken : forall n k (need need' : cident -> Prop) pi A A' G e ae,
  erel n need pi A G e ae -> k <= n -> (forall x, need' x -> need x) -> incl A A' ->
  erel k need' pi A' G e ae.
Proof.
  intros n k need need' pi A A' G e ae H Hk Hn HA. unfold erel in *.
  induction H as [|b ev G' e' [H1 H2] _ IH]; constructor; auto.
  split; [exact H1|]. intros Hx. destruct (H2 (Hn _ Hx)) as (Hin & av & Hl & Hv).
  split; [apply HA; exact Hin|]. exists av. split; [exact Hl|]. eapply vrel_le; eauto.
Qed.

Lemma flookup_notin : forall G x, ~ In x (cids G) -> flookup G x = None.
Proof.
  induction G as [|b G IH]; intros x H; [reflexivity|]. simpl in *.
  destruct (N.eqb (cid_id (cbvar b)) x) eqn:E; [apply N.eqb_eq in E; tauto|]. apply IH. tauto.
Qed.
Lemma flookup_in : forall G x b, flookup G x = Some b -> In b G /\ cid_id (cbvar b) = x.
Proof.
  induction G as [|b0 G IH]; intros x b H; [discriminate|]. simpl in H.
  destruct (N.eqb (cid_id (cbvar b0)) x) eqn:E.
  - inv H. apply N.eqb_eq in E. split; [now left | exact E].
  - apply IH in H as [H1 H2]. split; [now right | exact H2].
Qed.

Lemma erel_clookup : forall n need pi A G e ae x cv,
  erel n need pi A G e ae -> NoDup (cids G) -> CoreSem.clookup e x = Some cv ->
  exists b, flookup G (cid_id x) = Some b /\ cbvar b = x /\
    (need x -> In (idn (pi x)) A /\ exists av, lookup ae (idn (pi x)) = Some av /\ vrel n (cbchi b) (cbty b) cv av).
Proof.
  intros n need pi A G e ae x cv H. unfold erel in H.
  induction H as [|b [y v] G' e' [H1 H2] Hr IH]; intros Hnd Hl; [discriminate|].
  simpl in H1, H2. subst y. simpl in Hl. simpl in Hnd. inversion Hnd as [|? ? Hni Hnd']; subst.
  destruct (cident_eqb (cbvar b) x) eqn:E.
  - apply cident_eqb_eq in E. inv Hl. exists b. simpl. rewrite N.eqb_refl. auto.
  - destruct (IH Hnd' Hl) as (b' & Hf & Hb & Hn). exists b'. simpl.
    destruct (N.eqb (cid_id (cbvar b)) (cid_id x)) eqn:E2; [|auto].
    apply N.eqb_eq in E2. apply flookup_in in Hf as [Hin Hid]. exfalso. apply Hni. rewrite E2, <- Hid.
    unfold cids. apply in_map_iff. exists b'. auto.
Qed.

Lemma fbound_inv : forall G x c t, fbound G x c t = None ->
  exists b, flookup G (cid_id x) = Some b /\ cbchi b = c /\ cbty b = t.
Proof.
  intros G x c t H. unfold fbound in H. destruct (flookup G (cid_id x)) as [b|]; [|discriminate].
  apply fensure_none in H. apply andb_prop in H as [H1 H2]. exists b. split; [reflexivity|].
  split.
  - destruct (cbchi b), c; try discriminate; reflexivity.
  - destruct (cbty b) as [|n1], t as [|n2]; try discriminate; [reflexivity|]. simpl in H2. apply cident_eqb_eq in H2. now subst.
Qed.

(* a variable occurrence that the Core machine finds: typed, related *)
Lemma erel_var : forall n need pi A G e ae x c t cv,
  erel n need pi A G e ae -> NoDup (cids G) -> fbound G x c t = None -> need x ->
  CoreSem.clookup e x = Some cv ->
  In (idn (pi x)) A /\ exists av, lookup ae (idn (pi x)) = Some av /\ vrel n c t cv av.
Proof.
  intros n need pi A G e ae x c t cv He Hnd Hb Hn Hl.
  destruct (erel_clookup _ _ _ _ _ _ _ _ _ He Hnd Hl) as (b & Hf & _ & Hr).
  destruct (fbound_inv _ _ _ _ Hb) as (b' & Hf' & <- & <-). rewrite Hf in Hf'. inv Hf'. auto.
Qed.

Lemma vrel_int_inv : forall n cv av, vrel n CPrd CI64 cv av -> exists z, cv = BP (PInt z) /\ av = VInt z.
Proof.
  intros n cv av H. inversion H; subst.
  - eauto.
  - apply cloR_kind in H0. contradiction.
Qed.
Lemma vrel_kind_bp : forall n ty cv av, vrel n CPrd ty cv av -> exists pv, cv = BP pv.
Proof.
  intros n ty cv av H. inversion H; subst; eauto.
  apply cloR_kind in H0. destruct ty; [contradiction|]. destruct cv; [eauto | contradiction].
Qed.
Lemma vrel_kind_bk : forall n ty cv av, vrel n CCns ty cv av -> exists kv, cv = BK kv.
Proof.
  intros n ty cv av H. inversion H; subst; eauto.
  apply cloR_kind in H0. destruct ty; (destruct cv; [contradiction | eauto]).
Qed.
Lemma vrel_clo_inv : forall n c ty cv av, vrel n c ty cv av ->
  match c, ty with
  | CCns, CI64 => True
  | CCns, CDecl _ => is_codata codata ty = false
  | CPrd, CDecl _ => is_codata codata ty = true
  | CPrd, CI64 => False
  end ->
  exists tn cls ce, av = VClo tn cls ce /\ cloR n c ty cv av.
Proof.
  intros n c ty cv av H Hk. inversion H; subst; try contradiction; try congruence; eauto.
Qed.
Lemma vrel_prd_data_inv : forall n T cv av, vrel n CPrd (CDecl T) cv av -> is_codata codata (CDecl T) = false ->
  exists d K sg args fs tn, cv = BP (PCtor K args) /\ av = VObj tn K fs /\
    find_decl data T = Some d /\ find_cxtor d K = Some sg /\ vrels n (cxargs sg) args fs.
Proof.
  intros n T cv av H Hk. inversion H; subst.
  - do 6 eexists. repeat split; eauto.
  - apply cloR_kind in H0. unfold is_kind in H0. destruct cv; [congruence | contradiction].
Qed.
Lemma vrel_cns_codata_inv : forall n T cv av, vrel n CCns (CDecl T) cv av -> is_codata codata (CDecl T) = true ->
  exists d K sg args fs tn, cv = BK (KDtor K args) /\ av = VObj tn K fs /\
    find_decl codata T = Some d /\ find_cxtor d K = Some sg /\ vrels n (cxargs sg) args fs.
Proof.
  intros n T cv av H Hk. inversion H; subst.
  - do 6 eexists. repeat split; eauto.
  - apply cloR_kind in H0. unfold is_kind in H0. destruct cv; [contradiction | congruence].
Qed.

Lemma invoke_clo : forall k c ty cv tn cls ce tag fs sr out r,
  cloR (S k) c ty cv (VClo tn cls ce) -> msg (vrel k) c ty cv tag fs sr ->
  cont k sr out = r -> good r ->
  exists cl e1 m, find_clause cls tag = Some cl /\ bind (vars (cl_ctx cl)) fs = Some e1 /\
                  exec_named m q (e1 ++ ce) (cl_body cl) out = r.
Proof.
  intros k c ty cv tn cls ce tag fs sr out r Hc Hm Hr Hg.
  destruct (cloR_use _ k _ _ _ _ _ _ Hc (Nat.lt_succ_diag_r k) _ _ _ Hm) as (cl & e1 & Hf & Hb & Hbeh).
  destruct (Hbeh out r Hr Hg) as [m Hm']. eauto 8.
Qed.
End Rel.
