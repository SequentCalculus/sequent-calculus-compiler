(* `Prog::uniquify` preserves typing (C12):
     wt_core c = true -> every variable id of c <= max_id -> uniquify_prog c = Ok c1 -> wt_core c1 = true. *)
From Coq Require Import List ZArith NArith String Bool Lia.
From SCC Require Import Base.Sexp Lang.SynUtil Lang.CoreSyn Sem.FsCheck Sem.CoreCheck
     Model.Backend Model.Uniquify Model.FocusCheck
     Proof.CoreInd Proof.SubstProof Proof.CheckLemmas Proof.UniquifyProof Proof.FocusKont Proof.UqSubst Proof.UqAeq Proof.UqProof
     Proof.CoreTyRules Proof.CoreTyChi Proof.UqTy Proof.UqTyProg.
Import ListNotations.
Open Scope list_scope.
Open Scope N_scope.

Definition def_like (d d1 : cdef) : Prop := cdname d1 = cdname d /\ ctx_like (cdctx d) (cdctx d1).

Lemma uq_def_like : forall d m d1 m1, uq_def d m = Ok (d1, m1) -> def_like d d1.
Proof.
  intros [name ctx body] m d1 m1 H. unfold uq_def in H. simpl in H.
  destruct (uq_context ctx m [] [] []) as [[[ctx' vs] cs0] m0] eqn:Ec.
  apply rbind_ok in H. destruct H as (b1 & Eb & H). apply rbind_ok in H. destruct H as ([b2 m2] & Eu & H). okinv H.
  rewrite uq_context_uqc in Ec. destruct (uqc_spec _ _ _ _ _ _ Ec) as (_ & CL & _). split; [reflexivity | exact CL].
Qed.
Lemma uq_defs_like : forall ds m ds1 m1, maprs uq_def ds m = Ok (ds1, m1) -> Forall2 def_like ds ds1.
Proof.
  induction ds as [|d r IH]; intros m ds1 m1 H; simpl in H.
  - okinv H. constructor.
  - apply rbind_ok in H. destruct H as ([d1 m2] & Ed & H). apply rbind_ok in H. destruct H as ([r1 m3] & Er & H). okinv H.
    constructor; [eapply uq_def_like; eauto | eapply IH; eauto].
Qed.
Lemma like_find : forall ds ds1 f d, Forall2 def_like ds ds1 ->
  find (fun d => cident_eqb (cdname d) f) ds = Some d ->
  exists d1, find (fun d => cident_eqb (cdname d) f) ds1 = Some d1 /\ ctx_like (cdctx d) (cdctx d1).
Proof.
  intros ds ds1 f d H. induction H as [|a a1 r r1 [Hn Hc] Hr IH]; intros Hf; simpl in *; [discriminate|].
  rewrite Hn. destruct (cident_eqb (cdname a) f).
  - injection Hf as <-. exists a1. auto.
  - apply IH. exact Hf.
Qed.
Lemma like_names : forall ds ds1, Forall2 def_like ds ds1 -> map cdname ds1 = map cdname ds.
Proof. induction 1 as [|a a1 r r1 [Hn _] _ IH]; simpl; [reflexivity | rewrite Hn, IH; reflexivity]. Qed.

Lemma ctx_like_types : forall (P : cty -> bool) ctx ctx', ctx_like ctx ctx' ->
  forallb (fun b => P (cbty b)) ctx = true -> forallb (fun b => P (cbty b)) ctx' = true.
Proof.
  intros P ctx ctx' H. induction H as [|b b' r r' [_ H2] _ IH]; simpl; intros Hp; [reflexivity|].
  apply andb_true_iff in Hp. destruct Hp as [Hp1 Hp2]. rewrite H2, Hp1, (IH Hp2). reflexivity.
Qed.

Section Top.
  Variables (data codata : list ctydecl) (defs defs1 : list cdef).
  Hypothesis Hlike : Forall2 def_like defs defs1.

  (* one definition *)
  Lemma uq_def_typed : forall d m d1 m1 M,
    uq_def d m = Ok (d1, m1) -> M <= m -> ids_le_def M d = true ->
    NoDup (cvars (cdctx d)) -> ccheck_stmt data codata defs (cdctx d) (cdbody d) = None ->
    NoDup (cvars (cdctx d1)) /\ ccheck_stmt data codata defs1 (cdctx d1) (cdbody d1) = None /\ m <= m1.
  Proof.
    intros [name ctx body] m d1 m1 M H LE Hid Hnd Ht. unfold uq_def in H. simpl in *.
    unfold ids_le_def in Hid. simpl in Hid. apply andb_true_iff in Hid. destruct Hid as [Hic Hib].
    destruct (uq_context ctx m [] [] []) as [[[ctx' vs] cs0] m0] eqn:Ec.
    apply rbind_ok in H. destruct H as (b1 & Eb & H). apply rbind_ok in H. destruct H as ([b2 m2] & Eu & H). okinv H. simpl.
    assert (Hic' : forallb (fun i => N.leb i m) (cids ctx) = true).
    { eapply forallb_impl; [|exact Hic]. intros i _ Hi. apply N.leb_le in Hi. apply N.leb_le. lia. }
    assert (Hib' : ids_le_stmt m body = true) by (eapply ids_le_stmt_mono; [|exact Hib]; exact LE).
    assert (Ht' : ccheck_stmt data codata defs (ctx ++ []) body = None) by (rewrite app_nil_r; exact Ht).
    destruct (uq_ctx_body data codata defs ctx body [] m ctx' vs cs0 m0 b1 Ec Eb Ht' Hnd Hic' Hib') as (B1 & B2 & B3 & B4 & B5 & B6).
    { intros i []. }
    destruct (proj2 (proj2 (ut_all data codata defs defs1 (fun f d Hf => like_find defs defs1 f d Hlike Hf) (uq_fuel b1)))
                b1 (ctx' ++ []) m0 b2 m1 Eu B1 B2) as [U1 U2].
    { rewrite app_nil_r. exact B4. }
    rewrite app_nil_r in U1. split; [exact B6|]. split; [exact U1 | lia].
  Qed.
End Top.

Lemma uq_defs_typed : forall data codata defs defs1, Forall2 def_like defs defs1 ->
  forall ds m ds1 m1 M, maprs uq_def ds m = Ok (ds1, m1) -> M <= m ->
  (forall d, In d ds -> ids_le_def M d = true /\ NoDup (cvars (cdctx d)) /\
                        forallb (fun b => ty_ok data codata (cbty b)) (cdctx d) = true /\
                        ccheck_stmt data codata defs (cdctx d) (cdbody d) = None) ->
  forall d1, In d1 ds1 -> NoDup (cvars (cdctx d1)) /\ forallb (fun b => ty_ok data codata (cbty b)) (cdctx d1) = true /\
                          ccheck_stmt data codata defs1 (cdctx d1) (cdbody d1) = None.
Proof.
  intros data codata defs defs1 Hlike. induction ds as [|d r IH]; intros m ds1 m1 M H LE Hall d1 Hin; simpl in H.
  - okinv H. contradiction.
  - apply rbind_ok in H. destruct H as ([d' m2] & Ed & H). apply rbind_ok in H. destruct H as ([r1 m3] & Er & H). okinv H.
    destruct (Hall d (or_introl eq_refl)) as [H1 [H2 [H3 H4]]].
    destruct (uq_def_typed data codata defs defs1 Hlike d m d' m2 M Ed LE H1 H2 H4) as [T1 [T2 T3]].
    destruct Hin as [<-|Hin].
    + split; [exact T1|]. split; [|exact T2]. destruct (uq_def_like _ _ _ _ Ed) as [_ HL].
      eapply (ctx_like_types (ty_ok data codata)); eauto.
    + eapply (IH m2 r1 m1 M Er); eauto; [lia|]. intros d0 Hd0. apply Hall. right. exact Hd0.
Qed.

Theorem uniquify_preserves_typing : forall c c1,
  wt_core c = true -> forallb (ids_le_def (cpmax c)) (cpdefs c) = true -> uniquify_prog c = Ok c1 -> wt_core c1 = true.
Proof.
  intros c c1 Hwt Hids Hu. apply wt_core_iff, check_core_iff in Hwt. cbv zeta in Hwt.
  destruct Hwt as (C1 & C2 & C3 & C4 & C5 & C6). apply ccheck_defs_iff in C6. rewrite Forall_forall in C6.
  unfold uniquify_prog in Hu. rb2 Hu ds m Eds. okinv Hu.
  pose proof (uq_defs_like _ _ _ _ Eds) as Hlike.
  assert (Hall : forall d1, In d1 ds -> cdef_typed (mkcp ds (cpdata c) (cpcodata c) m) d1).
  { eapply (uq_defs_typed (cpdata c) (cpcodata c) (cpdefs c) ds Hlike (cpdefs c) (cpmax c) ds m (cpmax c) Eds); [lia|].
    intros d Hd. rewrite forallb_forall in Hids. split; [apply Hids; exact Hd | exact (C6 d Hd)]. }
  apply wt_core_iff, check_core_iff. cbv zeta. cbn [cpdata cpcodata cpdefs].
  unfold chi_ok_cprog in C1. apply andb_true_iff in C1. destruct C1 as [C1 C1c]. apply andb_true_iff in C1. destruct C1 as [_ C1d].
  split.
  { unfold chi_ok_cprog. cbn [cpdata cpcodata cpdefs]. rewrite C1d, C1c, !andb_true_r.
    apply forallb_forall. intros d1 Hd1. eapply typed_chi_ok. exact (proj2 (proj2 (Hall d1 Hd1))). }
  split; [exact C2|]. split; [exact C3|]. split; [exact C4|]. split; [rewrite (like_names _ _ Hlike); exact C5|].
  apply ccheck_defs_iff, Forall_forall. exact Hall.
Qed.
