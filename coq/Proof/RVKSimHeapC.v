(* Clauses may bind / closures may capture ANY number of variables; the landing
   point of an Invoke comes from `hclo_ok` under the condition that the clause code contains an instruction of non-zero size
   (Proof/RVKLayout.dispatch_layout_nz), `hsim_switch` also reports where the clause code sits in the code of the Switch.
   C08, forward simulation for HEAP statements: Switch (dispatch through the jump table, or
   fall-through for at most one clause, then the load of the fields) and Invoke (indirect jump through the
   data word of the closure, then the load of the captured environment).  The counterpart of
   Proof/X86HSimHeapC.v.  An indirect jump (`JALR`) lands on the instruction of non-zero size at the target
   address, i.e. possibly BEHIND the labels placed there, so the conclusions are in "rfin form": a run from
   the code of the clause body (after the load) and a run from the statement finish alike. *)
From Coq Require Import List ZArith NArith String Bool Lia FMapPositive Permutation.
From SCC Require Import Base.Sexp Lang.AxSyn Sem.AxSem Sem.AxHeap Model.ParMoves Model.Backend Model.RV Sem.RVSem Sem.RVWf
     Model.Linearize Model.LinCheck Generated.Constants Proof.LinBasics Proof.LinTyping
     Proof.RVSel Proof.SubstGraph Proof.SubstBackends Proof.RVSubst Proof.RVSimAddr Proof.BackendInv Proof.RVSimRel
     Proof.RVSimStmt Proof.RVSimClo
     Proof.RVHeapAbs Proof.RVHDefs Proof.RVHMem Proof.RVHBridge Proof.HRep Proof.RVKSimRel Proof.RVKSimStmt Proof.RVKSimStore Proof.RVKSimLoad
     Proof.RVHLayout Proof.RVKLayout Proof.RVKFrag Proof.X86HAnn Proof.RVKClo.
From SCC Require Model.Heap Proof.HeapMore Proof.HeapTrace Proof.HeapRep Proof.X86HSimHeapC Proof.A64HSimHeapC.
Import ListNotations.
Open Scope Z_scope.
Open Scope list_scope.

Notation bind_snd := X86HSimHeapC.bind_snd.
Notation load_ops_run := X86HSimHeapC.load_ops_run.
Notation ptrs_attach := X86HSimHeapC.ptrs_attach.
Lemma attach_nil_r (e : env) : e = [] -> forall ps, attach e ps = [].
Proof. intros ->. reflexivity. Qed.

Lemma kinds_join (cx sg : ctx) (fs : list value) : same_kt cx sg -> HRep.same_kinds fs sg ->
  Forall2 (fun b f => chi_of f = bchi b /\ ty_of f = bty b) cx fs.
Proof.
  intros H. revert fs. induction H as [|b1 b2 l1 l2 [A1 A2] _ IH]; intros fs SK; inversion SK; subst; constructor.
  - match goal with H : _ /\ _ |- _ => destruct H as [B1 B2] end. split; congruence.
  - apply IH. assumption.
Qed.

Notation ctx_of_env_kinds := A64HSimHeapC.ctx_of_env_kinds.
Notation ctx_of_env_ids := A64HSimHeapC.ctx_of_env_ids.
Lemma ctx_of_env_length (ce : list (ident * value)) : List.length (HRep.ctx_of_env ce) = List.length ce.
Proof. unfold HRep.ctx_of_env. apply map_length. Qed.

Section HC.
Variable im : image.
Variable p : prog.
Variable stop : positive.
Hypothesis IMG : rimg_ok im.
Hypothesis FWD : fwd_ok im.
Hypothesis EVEN : forall pc a, PM.find pc (addr_of im) = Some a -> a mod 2 = 0.
Hypothesis SMALL : forall pc a, PM.find pc (addr_of im) = Some a -> a < 4611686018427387904 - 32.
Hypothesis STOPC : exists l, PM.find stop (code im) = Some (LAB l).
Hypothesis ENDC : PM.find (Pos.succ stop) (code im) = None.
Hypothesis ENC : forall pc c, PM.find pc (code im) = Some c -> instr_wf c = true.
(* what the data word of a closure points to: `hclo_ok im p stop` or a stronger predicate (Proof/RVHSimHeapC.v); Invoke
   asks for `hclo_ok` of the invoked closure *)
Variable CLO : Z -> ident -> list clause -> ctx -> Prop.
Local Notation hrel := (hrel (ptypes p) CLO).
Local Notation hvrep := (hvrep (ptypes p) CLO).
Local Notation xrep := (HRep.xrep (ptypes p) CLO jump_length any_int).
Local Notation xflds := (HRep.xflds (ptypes p) CLO jump_length any_int).

(* a state that differs from s in X1 (TEMP) only keeps the relation *)
Lemma hrel_temp c he hs s s' :
  hrel c he hs s -> (forall a, hword s' a = hword s a) -> (forall r, r <> TEMP -> rget s' r = rget s r) ->
  hrel c he hs s'.
Proof.
  intros R HE RG. apply (hrel_keep (ptypes p) CLO c he hs s s' R HE).
  - apply RG. discriminate.
  - apply RG. discriminate.
  - intros i b n t _ _ T. apply RG. apply rtpos_regs in T. tauto.
Qed.

Theorem hsim_switch_clo c he hs s v t cls lc code lc' pc he0 x tn tag fs q cl e1 lk hl fl cl0 :
  hrel c he hs s -> lin_check (sigs_of p) c (Switch v t cls) = true ->
  rcs (ptypes p) (Switch v t cls) c lc = Ok (code, lc') -> placed im pc code ->
  AxSem.split_last 1 he = Some (he0, [(x, VObj tn tag fs, q)]) ->
  find_clause cls tag = Some cl -> bind (vars (cl_ctx cl)) fs = Some e1 ->
  InvA HEAP_BASE hs (roots he) hl fl cl0 -> P03 hs -> Heap.frontier hs <= LIMIT ->
  (fs <> [] -> HeapRep.rep_flds lk (Heap.m hs) fs q) ->
  let c0 := removelast c in
  exists pcb lcb cb lcb' s',
    (forall o, rfin im stop pcb s' o -> rfin im stop pc s o) /\
    rcs (ptypes p) (cl_body cl) (c0 ++ cl_ctx cl) lcb = Ok (cb, lcb') /\ placed im pcb cb /\
    lin_check (sigs_of p) (c0 ++ cl_ctx cl) (cl_body cl) = true /\
    (has_nz cb -> has_nz code) /\
    hrel (c0 ++ cl_ctx cl) (he0 ++ attach e1 (load_ptrs hs (List.length (cl_ctx cl)) q))
         (hrun (load_ops (List.length (cl_ctx cl)) q) hs) s'.
Proof.
  intros R LC CS PL SL FC BD IA K03 HFr RF c0'.
  apply SimFrag.split_last1_inv in SL. subst he.
  pose proof (hrel_length R) as LEN. rewrite app_length in LEN. cbn [List.length] in LEN.
  rewrite lin_check_switch in LC. apply andb_true_iff in LC as [_ LC].
  destruct (split_lastn 1 c) as [[c0 [|b [|b' r]]]|] eqn:SLc; try discriminate.
  apply split_lastn_Some in SLc as [-> _]. unfold c0'. rewrite removelast_last. clear c0'.
  apply andb_true_iff in LC as [LC LCc]. apply andb_true_iff in LC as [LC CO]. apply andb_true_iff in LC as [LC TY].
  apply andb_true_iff in LC as [IDb CHb]. apply N.eqb_eq in IDb. apply ty_eqb_eq in TY. apply chi_eqb_eq in CHb.
  rewrite app_length in LEN. cbn [List.length] in LEN. assert (L0 : List.length he0 = List.length c0) by lia.
  destruct (cs_switch _ _ _ _ _ _ _ _ CS) as (c1 & c3 & C1 & GC & ->).
  rewrite removelast_last in GC.
  (* the scrutinee *)
  destruct (hr_vals R (List.length he0) x (VObj tn tag fs) q) as (b0 & Hb0 & V); [apply nth_error_mid|].
  rewrite L0, nth_error_mid in Hb0. inversion Hb0; subst b0. clear Hb0.
  inversion V as [|b1 v1 q1 dw t1 t2 NE K1 K2 T1 T2 L1 L2 X]; subst. clear V.
  cbn in K2. rewrite <- K2 in *.
  set (fresh := type_label (Decl tn) (lc + 1)%N) in *.
  inversion X as [|tn1 tag1 fs1 q1 a1 TW XF|]; subst. clear X.
  destruct TW as (d & k' & xk & FD & XP' & -> & FX & SK).
  unfold cls_ok, type_xtors in CO. cbn [sigs_of sg_types] in CO. rewrite FD in CO.
  destruct (SimFrag.find_clause_pos cls (txtors d) tag cl 0%N CO FC) as (k & xk0 & Hk & Hxk & XP & FX' & SMk).
  assert (xk0 = xk) by congruence. subst xk0.
  assert (Ek : k' = N.of_nat k) by (rewrite XP in XP'; inversion XP'; lia). subst k'.
  destruct (bind_snd _ _ _ BD) as [E1S E1N].
  assert (Lfs : List.length fs = List.length (cl_ctx cl)).
  { apply SimFrag.bind_length in BD. unfold vars in BD. rewrite map_length in BD. lia. }
  assert (Lk : (k < List.length cls)%nat) by (unfold clause in *; apply nth_error_Some; rewrite Hk; discriminate).
  (* the label, the table, the clauses *)
  apply placed_app in PL as [PL1 PL].
  set (pcl := padd pc (List.length c1)) in *.
  assert (CL0 : PM.find pcl (code im) = Some (LAB fresh)).
  { destruct PL as [CA _]. rewrite <- app_assoc in CA. exact (proj1 (CA O _ eq_refl)). }
  destruct (io_addr im IMG pcl _ CL0) as (a & AL & GE).
  assert (FL : find_label (labels im) fresh = Some pcl).
  { destruct PL as [_ LA]. rewrite <- app_assoc in LA. exact (LA O fresh eq_refl). }
  pose proof (label_addr_of im fresh pcl a FL AL) as LAD.
  destruct (dispatch_layout_nz im stop IMG FWD STOPC ENDC (ptypes p) (fun cx lc0 => r_load cx c0 lc0) (fun cx => c0 ++ cx)
              pcl fresh cls c3 (lc + 1)%N lc' a PL GC AL k cl Hk)
    as (pcc & lcl & cl1 & lcb & cb & lcb' & (pre5 & post5 & E5) & DOWN & LD & BDY & PLb & LAND).
  assert (NZC : has_nz cb -> has_nz (c1 ++ ([LAB fresh] ++ table_or_nil rv_backend cls fresh) ++ c3)).
  { intros NZ. apply has_nz_app_r, has_nz_app_r. rewrite E5. apply has_nz_app_r, has_nz_app_l, has_nz_app_r. exact NZ. }
  (* control reaches the code of the clause; only X1 changes *)
  unfold clause in *.
  assert (JUMP : exists sj, (forall o, rfin im stop pcc sj o -> rfin im stop pc s o) /\
                            (forall a0, hword sj a0 = hword s a0) /\ (forall r, r <> TEMP -> rget sj r = rget s r)).
  { clear NZC. unfold clause in *. destruct (Nat.leb (List.length cls) 1) eqn:LE.
    - subst c1. exists s. split; [|auto]. intros o Fin. cbn [List.length padd] in pcl.
      exact (star_rfin im stop STOPC ENDC _ _ _ _ o (DOWN eq_refl s) Fin).
    - destruct (LAND (or_intror eq_refl)) as (i & IX & ARR).
      destruct C1 as (tmpv & TVs & ->).
      assert (tmpv = t2).
      { rewrite <- IDb in TVs. rewrite (rvt_of_nth0 (c0 ++ [b]) (List.length c0) b (hr_nodup R) (nth_error_mid _ _ _)) in TVs.
        rewrite L0 in T2. congruence. }
      subst tmpv. unfold switch_head in PL1. unfold clause in *. rewrite LE in PL1.
      set (off := jump_length (N.of_nat k)) in *.
      assert (OFF : off = 4 * Z.of_nat k) by (unfold off, jump_length; rewrite nat_N_Z; reflexivity).
      (* the address of the table entry *)
      assert (CODE' : at_code im pcl ([LAB fresh] ++ code_table rv_backend cls fresh ++ c3)).
      { destruct PL as [CA _]. unfold table_or_nil in CA. unfold clause in *. rewrite LE in CA. rewrite <- app_assoc in CA. exact CA. }
      destruct (table_entry_k im IMG pcl fresh cls c3 a CODE' AL k Lk) as [_ TE2].
      pose proof (SMALL _ _ TE2) as SM. pose proof (EVEN _ _ TE2) as EV. rewrite <- OFF in SM, EV.
      assert (WR : wrap (a + off) = a + off).
      { apply wrap_small. unfold min_int, max_int, two63. unfold CODE_BASE in GE. lia. }
      destruct (rtpos_regs _ _ _ T2) as (Z2 & N2 & _).
      destruct PL1 as [CA1 _].
      set (sa := rset s TEMP (Some a)).
      set (sb := rset sa TEMP (Some (a + off))).
      assert (RGb : rget sb TEMP = Some (a + off)) by (unfold sb; apply rget_rset_same; discriminate).
      exists sb. split; [|split].
      + intros o Fin. apply ARR in Fin. refine (star_rfin im stop STOPC ENDC _ _ _ _ o _ Fin).
        eapply star_trans; [eapply (star_next im _ _ _ s sa); [exact CA1|]|].
        { intros ad. cbn [step]. rewrite LAD. reflexivity. }
        apply at_code_cons in CA1 as [_ CA1].
        eapply star_trans; [eapply (star_next im _ _ _ sa sb); [exact CA1|]|].
        { intros ad. unfold sb. rewrite <- WR. apply step_ADD; [apply rget_rset_same; discriminate|].
          unfold sa. rewrite rget_rset_other by congruence. exact L2. }
        apply at_code_cons in CA1 as [_ CA1].
        eapply (star_jump im _ _ _ sb sb); [exact CA1|]. intros ad.
        exact (step_JALR0 im ad TEMP (a + off) i sb RGb EV IX).
      + intros a0. unfold sb, sa. now rewrite !hword_rset.
      + intros r0 Hr. unfold sb, sa. rewrite !rget_rset_other by congruence. reflexivity. }
  destruct JUMP as (sj & XJ & HEj & RGj).
  pose proof (hrel_temp _ _ _ s sj R HEj RGj) as Rj.
  assert (LCb : lin_check (sigs_of p) (c0 ++ cl_ctx cl) (cl_body cl) = true).
  { unfold lin_clauses_sw in LCc. rewrite forallb_forall in LCc. apply LCc. eapply nth_error_In; eauto. }
  apply placed_app in PLb as [PLl PLbd].
  destruct fs as [|f0 fr].
  - (* no field: nothing to load *)
    assert (ECX : cl_ctx cl = []) by (destruct (cl_ctx cl); [reflexivity|cbn in Lfs; lia]).
    assert (e1 = []) by (rewrite ECX in BD; cbn in BD; congruence). subst e1.
    rewrite ECX in *. rewrite r_load_nil in LD. inversion LD; subst cl1 lcb. cbn [List.length padd] in PLbd.
    exists pcc, lcl, cb, lcb', sj. split; [exact XJ|]. split; [exact BDY|]. split; [exact PLbd|].
    split; [exact LCb|]. split; [exact NZC|].
    cbn [List.length load_ops hrun fold_left attach]. rewrite !app_nil_r.
    eapply (hrel_prefix (ptypes p) CLO); exact Rj.
  - set (fs := f0 :: fr) in *.
    assert (NEf : fs <> []) by discriminate.
    assert (XFj : xflds (hword sj) fs q).
    { eapply (HRep.xflds_ext (ptypes p) CLO jump_length any_int); [|exact XF]. intros a0 _. apply HEj. }
    assert (LQ : rget sj (pos_reg Fst (List.length c0)) = Some q).
    { destruct (rtpos_val _ _ _ T1) as [E1 _]. rewrite L0 in E1. rewrite <- E1.
      rewrite RGj; [exact L1|]. apply rtpos_regs in T1. tauto. }
    assert (KIN : Forall2 (fun b0 f => chi_of f = bchi b0 /\ ty_of f = bty b0) (cl_ctx cl) fs).
    { apply sig_match_iff in SMk. exact (kinds_join _ _ _ SMk SK). }
    assert (E1F : env_ids e1 = ids (cl_ctx cl)).
    { unfold env_ids. rewrite <- (map_map fst idn), E1N. unfold vars, ids. now rewrite map_map. }
    destruct (hsim_load im (ptypes p) CLO c0 (cl_ctx cl) he0 x (VObj tn tag fs) q fs e1 hs sj lcl cl1 lcb pcc lk hl fl cl0
                (hrel_prefix (ptypes p) CLO c0 b he0 _ hs sj Rj) LQ XFj NEf E1S E1F KIN (SimFrag.lin_nodup _ _ _ LCb) IA K03 (RF NEf) HFr LD PLl)
      as (s' & XL & RL).
    exists (padd pcc (List.length cl1)), lcb, cb, lcb', s'.
    split; [intros o Fin; apply XJ; exact (star_rfin im stop STOPC ENDC _ _ _ _ o XL Fin)|].
    split; [exact BDY|]. split; [exact PLbd|]. split; [exact LCb|]. split; [exact NZC|].
    rewrite <- Lfs. rewrite load_ops_run by (cbn; lia). exact RL.
Qed.

Theorem hsim_invoke_clo c he hs s v tag t args cd lc lc' pc he0 x tn cls ce q cl e1 lk hl fl cl0 :
  (forall a, CLO a tn cls (HRep.ctx_of_env ce) -> hclo_ok im p stop a tn cls (HRep.ctx_of_env ce)) ->
  hrel c he hs s ->
  AxSem.split_last 1 he = Some (he0, [(x, VClo tn cls ce, q)]) ->
  find_clause cls tag = Some cl -> bind (vars (cl_ctx cl)) (map snd (erase_env he0)) = Some e1 ->
  lin_check (sigs_of p) c (Invoke v tag t args) = true ->
  rcs (ptypes p) (Invoke v tag t args) c lc = Ok (cd, lc') -> at_code im pc cd ->
  InvA HEAP_BASE hs (roots he) hl fl cl0 -> P03 hs -> Heap.frontier hs <= LIMIT ->
  (ce <> [] -> HeapRep.rep_flds lk (Heap.m hs) (map snd ce) q) ->
  exists pcb lcb cb lcb' s',
    (has_nz cb -> forall o, rfin im stop pcb s' o -> rfin im stop pc s o) /\
    rcs (ptypes p) (cl_body cl) (cl_ctx cl ++ HRep.ctx_of_env ce) lcb = Ok (cb, lcb') /\ placed im pcb cb /\
    lin_check (sigs_of p) (cl_ctx cl ++ HRep.ctx_of_env ce) (cl_body cl) = true /\
    ann_check (cl_ctx cl ++ HRep.ctx_of_env ce) (cl_body cl) = true /\ stmt_k (cl_body cl) = true /\
    hrel (cl_ctx cl ++ HRep.ctx_of_env ce) (attach e1 (ptrs he0) ++ attach ce (load_ptrs hs (List.length ce) q))
         (hrun (load_ops (List.length ce) q) hs) s'.
Proof.
  intros OLD R SL FC BD LC CS CA IA K03 HFr RF.
  apply SimFrag.split_last1_inv in SL. subst he.
  pose proof (hrel_length R) as LEN. rewrite app_length in LEN. cbn [List.length] in LEN.
  cbn [lin_check] in LC. apply andb_true_iff in LC as [_ LC].
  destruct (split_lastn 1 c) as [[c0 [|b [|b' r]]]|] eqn:SLc; try discriminate.
  apply split_lastn_Some in SLc as [-> _].
  apply andb_true_iff in LC as [LC AO]. apply andb_true_iff in LC as [LC TY]. apply andb_true_iff in LC as [IDb CHb].
  apply N.eqb_eq in IDb. apply ty_eqb_eq in TY. apply chi_eqb_eq in CHb.
  rewrite app_length in LEN. cbn [List.length] in LEN. assert (L0 : List.length he0 = List.length c0) by lia.
  (* the closure *)
  destruct (hr_vals R (List.length he0) x (VClo tn cls ce) q) as (b0 & Hb0 & V); [apply nth_error_mid|].
  rewrite L0, nth_error_mid in Hb0. inversion Hb0; subst b0. clear Hb0.
  inversion V as [|b1 v1 q1 a t1 t2 NE K1 K2 T1 T2 L1 L2 X]; subst. clear V.
  cbn in K2. rewrite <- K2 in *.
  inversion X as [| |tn1 cls1 ce1 q1 a1 CLOa XF]; subst. clear X.
  destruct (OLD _ CLOa) as (CO & AB & AEV & ENTRY).
  destruct (cs_invoke _ _ _ _ _ _ _ _ _ _ CS) as (tmpv & d & TV & LT & _ & CODE).
  assert (TVeq : tmpv = t2).
  { rewrite <- IDb in TV. rewrite (rvt_of_nth0 (c0 ++ [b]) (List.length c0) b (hr_nodup R) (nth_error_mid _ _ _)) in TV.
    rewrite L0 in T2. congruence. }
  subst tmpv.
  unfold cls_ok, type_xtors in CO. cbn [sigs_of sg_types] in CO.
  unfold lookup_type in LT.
  destruct (find (fun d => ident_eqb (tname d) tn) (ptypes p)) as [d'|] eqn:FD; [|discriminate]. inversion LT; subst d'. clear LT.
  destruct (SimFrag.find_clause_pos cls (txtors d) tag cl 0%N CO FC) as (k & xk & Hk & Hxk & XP & FX & SMk).
  pose proof (SimFrag.cls_sig_length _ _ CO) as LCL.
  destruct (ENTRY k cl Hk) as (pcc & lcl & cl1 & lcb & cb & lcb' & LD & BDY & PLb & LCb & ANb & FRb & ABk & LAND).
  assert (T2' : rtpos Snd (List.length c0) = Ok t2) by (rewrite <- L0; exact T2).
  assert (T1' : rtpos Fst (List.length c0) = Ok t1) by (rewrite <- L0; exact T1).
  (* the arguments, relabelled *)
  assert (SM0 : sig_match c0 (cl_ctx cl) = true).
  { unfold args_ok, lookup_xtor, type_xtors in AO. cbn [sigs_of sg_types] in AO. rewrite FD, FX in AO. eapply SimFrag.sig_match_join; eauto. }
  assert (LC0 : List.length (cl_ctx cl) = List.length c0) by (apply sig_match_iff, same_kt_length in SM0; lia).
  assert (NDc : NoDup (ids (cl_ctx cl))).
  { pose proof (SimFrag.lin_nodup _ _ _ LCb) as X. unfold ids in *. rewrite map_app in X. eapply ParMoves.NoDup_app_l; eauto. }
  pose proof (hbind_rel (ptypes p) CLO c0 he0 hs s (cl_ctx cl) e1 (hrel_prefix (ptypes p) CLO c0 b he0 _ hs s R) NDc SM0 BD) as R1.
  assert (Le1 : List.length e1 = List.length (ptrs he0)).
  { destruct (bind_snd _ _ _ BD) as [_ B2]. apply (f_equal (@List.length ident)) in B2. unfold vars, ptrs in *. rewrite !map_length in *. lia. }
  (* the jump: only X1 changes *)
  assert (JUMP : exists sj, (has_nz (cl1 ++ cb) -> forall o, rfin im stop pcc sj o -> rfin im stop pc s o) /\
                            (forall a0, hword sj a0 = hword s a0) /\ (forall r, r <> TEMP -> rget sj r = rget s r)).
  { cbn [b_mark b_jump b_add_and_jump b_jump_length rv_backend app] in CODE.
    rewrite <- LCL in CODE. destruct (Nat.leb (List.length cls) 1) eqn:LE.
    - (* one destructor: jump through the register *)
      subst cd. unfold r_jump in CA.
      exists s. split; [|auto]. intros NZ o Fin. destruct (LAND NZ) as (i & IX & ARR). rewrite Z.add_0_r in IX.
      apply ARR in Fin. refine (star_rfin im stop STOPC ENDC _ _ _ _ o _ Fin).
      eapply star_jump; [exact CA|]. intros ad. now apply step_JALR0 with (a := a).
    - (* several destructors: add the table offset, then jump *)
      destruct CODE as (k' & XP' & ->). assert (k' = N.of_nat k) by (rewrite XP in XP'; inversion XP'; lia). subst k'.
      set (off := jump_length (N.of_nat k)) in *.
      assert (OFF : 0 <= off) by (unfold off, jump_length; lia).
      assert (WR : wrap (a + off) = a + off) by (apply wrap_small; unfold min_int, max_int, two63; lia).
      assert (EV : (a + off) mod 2 = 0).
      { unfold off, jump_length. replace (a + 4 * Z.of_N (N.of_nat k)) with (a + (2 * Z.of_N (N.of_nat k)) * 2) by lia.
        rewrite Z.mod_add by lia. exact AEV. }
      set (s1 := rset s TEMP (Some (a + off))).
      exists s1. split; [|split].
      2:{ intros a0. unfold s1. apply hword_rset. }
      2:{ intros r0 Hr. unfold s1. apply rget_rset_other. congruence. }
      intros NZ o Fin. destruct (LAND NZ) as (i & IX & ARR).
      assert (JMP : forall ad, step im ad (JALR ZERO TEMP 0) s1 = Jump s1 i).
      { intros ad. apply step_JALR0 with (a := a + off); [apply rget_rset_same; discriminate|exact EV|exact IX]. }
      apply ARR in Fin. refine (star_rfin im stop STOPC ENDC _ _ _ _ o _ Fin).
      unfold r_add_and_jump in CA. destruct (addi_fits off) eqn:FI; cbn [app] in CA.
      + (* the offset is an ADDI immediate *)
        eapply star_trans; [eapply (star_next im _ _ _ s s1); [exact CA|]|].
        * intros ad. unfold s1. rewrite <- WR. now apply step_ADDI.
        * apply at_code_cons in CA as [_ CA]. eapply star_jump; [exact CA|exact JMP].
      + (* a larger offset: LI X1, off; ADD X1, t2, X1 *)
        assert (NT2 : t2 <> TEMP) by (apply rtpos_regs in T2'; tauto).
        eapply star_trans; [eapply (star_next im _ _ _ s (rset s TEMP (Some off))); [exact CA|reflexivity]|].
        apply at_code_cons in CA as [_ CA].
        eapply star_trans; [eapply (star_next im _ _ _ _ s1); [exact CA|]|].
        * intros ad. rewrite (step_ADD im ad TEMP t2 TEMP _ a off).
          -- unfold s1. now rewrite rset_rset, WR.
          -- now rewrite rget_rset_other by congruence.
          -- apply rget_rset_same. discriminate.
        * apply at_code_cons in CA as [_ CA]. eapply star_jump; [exact CA|exact JMP]. }
  destruct JUMP as (sj & XJ & HEj & RGj).
  pose proof (hrel_temp _ _ _ s sj R1 HEj RGj) as Rj.
  assert (LQ : rget sj (pos_reg Fst (List.length (cl_ctx cl))) = Some q).
  { rewrite LC0. destruct (rtpos_val _ _ _ T1') as [E1 _]. rewrite <- E1.
    rewrite RGj; [exact L1|]. apply rtpos_regs in T1'. tauto. }
  apply placed_app in PLb as [PLl PLbd].
  destruct ce as [|ce0 cer].
  - (* nothing captured *)
    cbn [HRep.ctx_of_env map] in *. rewrite r_load_nil in LD. inversion LD; subst cl1 lcb. cbn [List.length padd] in PLbd.
    exists pcc, lcl, cb, lcb', sj. split; [exact XJ|]. split; [exact BDY|]. split; [exact PLbd|].
    split; [exact LCb|]. split; [exact ANb|]. split; [exact FRb|].
    cbn [List.length load_ops hrun fold_left attach]. rewrite !app_nil_r. exact Rj.
  - set (ce := ce0 :: cer) in *.
    assert (NEc : map snd ce <> []) by discriminate.
    assert (XFj : xflds (hword sj) (map snd ce) q).
    { eapply (HRep.xflds_ext (ptypes p) CLO jump_length any_int); [|exact XF]. intros a0 _. apply HEj. }
    assert (IA' : InvA HEAP_BASE hs (roots (attach e1 (ptrs he0) ++ [(x, VClo tn cls ce, q)])) hl fl cl0).
    { assert (ER : roots (attach e1 (ptrs he0) ++ [(x, VClo tn cls ce, q)]) = roots (he0 ++ [(x, VClo tn cls ce, q)])).
      { unfold roots. f_equal. unfold ptrs at 1 3. rewrite !map_app. f_equal. exact (ptrs_attach e1 (ptrs he0) Le1). }
      rewrite ER. exact IA. }
    destruct (hsim_load im (ptypes p) CLO (cl_ctx cl) (HRep.ctx_of_env ce) (attach e1 (ptrs he0)) x (VClo tn cls ce) q (map snd ce) ce hs sj lcl cl1 lcb pcc lk hl fl cl0
                Rj LQ XFj NEc eq_refl (ctx_of_env_ids ce) (ctx_of_env_kinds ce) (SimFrag.lin_nodup _ _ _ LCb) IA' K03 (RF ltac:(discriminate)) HFr LD PLl)
      as (s' & XL & RL).
    rewrite map_length in RL.
    exists (padd pcc (List.length cl1)), lcb, cb, lcb', s'.
    split; [intros NZ o Fin; apply (XJ (has_nz_app_r _ _ NZ)); exact (star_rfin im stop STOPC ENDC _ _ _ _ o XL Fin)|].
    split; [exact BDY|]. split; [exact PLbd|]. split; [exact LCb|]. split; [exact ANb|]. split; [exact FRb|].
    rewrite load_ops_run by (cbn; lia). exact RL.
Qed.
End HC.

(* at `CLO := hclo_ok im p stop` *)
Section HCClo.
Variable im : image.
Variable p : prog.
Variable stop : positive.
Hypothesis IMG : rimg_ok im.
Hypothesis FWD : fwd_ok im.
Hypothesis EVEN : forall pc a, PM.find pc (addr_of im) = Some a -> a mod 2 = 0.
Hypothesis SMALL : forall pc a, PM.find pc (addr_of im) = Some a -> a < 4611686018427387904 - 32.
Hypothesis STOPC : exists l, PM.find stop (code im) = Some (LAB l).
Hypothesis ENDC : PM.find (Pos.succ stop) (code im) = None.
Local Notation CLO := (hclo_ok im p stop).
Local Notation hrel := (hrel (ptypes p) CLO).

Theorem hsim_switch c he hs s v t cls lc code lc' pc he0 x tn tag fs q cl e1 lk hl fl cl0 :
  hrel c he hs s -> lin_check (sigs_of p) c (Switch v t cls) = true -> clauses_k cls = true ->
  rcs (ptypes p) (Switch v t cls) c lc = Ok (code, lc') -> placed im pc code ->
  AxSem.split_last 1 he = Some (he0, [(x, VObj tn tag fs, q)]) ->
  find_clause cls tag = Some cl -> bind (vars (cl_ctx cl)) fs = Some e1 ->
  InvA HEAP_BASE hs (roots he) hl fl cl0 -> P03 hs -> Heap.frontier hs <= LIMIT ->
  (fs <> [] -> HeapRep.rep_flds lk (Heap.m hs) fs q) ->
  let c0 := removelast c in
  exists pcb lcb cb lcb' s',
    (forall o, rfin im stop pcb s' o -> rfin im stop pc s o) /\
    rcs (ptypes p) (cl_body cl) (c0 ++ cl_ctx cl) lcb = Ok (cb, lcb') /\ placed im pcb cb /\
    lin_check (sigs_of p) (c0 ++ cl_ctx cl) (cl_body cl) = true /\
    (has_nz cb -> has_nz code) /\
    hrel (c0 ++ cl_ctx cl) (he0 ++ attach e1 (load_ptrs hs (List.length (cl_ctx cl)) q))
         (hrun (load_ops (List.length (cl_ctx cl)) q) hs) s'.
Proof.
  intros R LC _.
  exact (hsim_switch_clo im p stop IMG FWD EVEN SMALL STOPC ENDC CLO c he hs s v t cls lc code lc' pc he0 x tn tag fs q cl e1 lk hl fl cl0 R LC).
Qed.

Theorem hsim_invoke c he hs s v tag t args cd lc lc' pc he0 x tn cls ce q cl e1 lk hl fl cl0 :
  hrel c he hs s ->
  AxSem.split_last 1 he = Some (he0, [(x, VClo tn cls ce, q)]) ->
  find_clause cls tag = Some cl -> bind (vars (cl_ctx cl)) (map snd (erase_env he0)) = Some e1 ->
  lin_check (sigs_of p) c (Invoke v tag t args) = true ->
  rcs (ptypes p) (Invoke v tag t args) c lc = Ok (cd, lc') -> at_code im pc cd ->
  InvA HEAP_BASE hs (roots he) hl fl cl0 -> P03 hs -> Heap.frontier hs <= LIMIT ->
  (ce <> [] -> HeapRep.rep_flds lk (Heap.m hs) (map snd ce) q) ->
  exists pcb lcb cb lcb' s',
    (has_nz cb -> forall o, rfin im stop pcb s' o -> rfin im stop pc s o) /\
    rcs (ptypes p) (cl_body cl) (cl_ctx cl ++ HRep.ctx_of_env ce) lcb = Ok (cb, lcb') /\ placed im pcb cb /\
    lin_check (sigs_of p) (cl_ctx cl ++ HRep.ctx_of_env ce) (cl_body cl) = true /\
    ann_check (cl_ctx cl ++ HRep.ctx_of_env ce) (cl_body cl) = true /\ stmt_k (cl_body cl) = true /\
    hrel (cl_ctx cl ++ HRep.ctx_of_env ce) (attach e1 (ptrs he0) ++ attach ce (load_ptrs hs (List.length ce) q))
         (hrun (load_ops (List.length ce) q) hs) s'.
Proof.
  exact (hsim_invoke_clo im p stop STOPC ENDC CLO c he hs s v tag t args cd lc lc' pc he0 x tn cls ce q cl e1 lk hl fl cl0 (fun _ H => H)).
Qed.
End HCClo.
