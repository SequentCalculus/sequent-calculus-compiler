(* C18: totality facts about the models.
   1. the literal conversion ([num_of_digits] = the Num action of fun.lalrpop) and its place in lexer and parser model
   2. the stage-totality results of the middle end, chained
   3. an error of a code generator on a linear program means that the program exceeds the capacity
   4. the stages composed, given the typing links of Proof/WtPreserve.v
   (that the fuel of the lexer and parser models suffices: Proof/LexFuel.v, Proof/ParseFuel.v) *)
From Coq Require Import List ZArith NArith String Ascii Bool Lia Decimal DecimalString.
From SCC Require Import Base.Sexp Lang.SynUtil Lang.FunSyn Model.Printer Model.Parser Model.NumLit.
Import ListNotations.
Open Scope string_scope.

(* 1. literals *)

(* Horner value of a Decimal.uint (most significant digit first) on top of an accumulator *)
Fixpoint uval (d : uint) (acc : N) : N :=
  match d with
  | Nil => acc
  | D0 l => uval l (10 * acc)
  | D1 l => uval l (10 * acc + 1)
  | D2 l => uval l (10 * acc + 2)
  | D3 l => uval l (10 * acc + 3)
  | D4 l => uval l (10 * acc + 4)
  | D5 l => uval l (10 * acc + 5)
  | D6 l => uval l (10 * acc + 6)
  | D7 l => uval l (10 * acc + 7)
  | D8 l => uval l (10 * acc + 8)
  | D9 l => uval l (10 * acc + 9)
  end%N.

Lemma of_uint_acc_uval d : forall p, Npos (Pos.of_uint_acc d p) = uval d (Npos p).
Proof.
  induction d; intro p; cbn [Pos.of_uint_acc uval]; try reflexivity;
    rewrite IHd; f_equal; lia.
Qed.

Lemma of_uint_uval d : N.of_uint d = uval d 0%N.
Proof.
  unfold N.of_uint.
  induction d; cbn [Pos.of_uint uval]; try reflexivity;
    try (rewrite of_uint_acc_uval; f_equal; lia).
  exact IHd.
Qed.

(* a digit is one of the ten characters from "0" *)
Lemma is_digit_inv c : is_digit c = true -> exists k, (k < 10)%nat /\ c = ascii_of_nat (48 + k).
Proof.
  unfold is_digit. cbv zeta. intro H. apply andb_true_iff in H as [H1 H2]. apply Nat.leb_le in H1, H2.
  exists (nat_of_ascii c - 48)%nat. split; [lia|].
  replace (48 + (nat_of_ascii c - 48))%nat with (nat_of_ascii c) by lia. symmetry. apply ascii_nat_embedding.
Qed.

Lemma digit_val_of_nat k : (k < 10)%nat -> digit_val (ascii_of_nat (48 + k)) = N.of_nat k.
Proof. intro H. unfold digit_val. rewrite nat_ascii_embedding by lia. lia. Qed.

Lemma digit_string_uint s :
  all_digits s = true ->
  exists d, NilEmpty.uint_of_string s = Some d /\ forall acc, uval d acc = dec_value_acc acc s.
Proof.
  induction s as [|c r IH]; intro H.
  - exists Nil. split; [reflexivity | intro; reflexivity].
  - cbn [all_digits] in H. apply andb_prop in H. destruct H as [Hc Hr].
    destruct (IH Hr) as [d [Hd Hv]].
    cbn [NilEmpty.uint_of_string]. rewrite Hd.
    destruct (is_digit_inv c Hc) as (k & Hk & ->).
    do 10 (destruct k as [|k];
      [eexists; split; [reflexivity | intro acc; cbn [uval dec_value_acc]; rewrite Hv, digit_val_of_nat by lia; f_equal; lia]|]).
    lia.
Qed.

Lemma n_of_string_digits s :
  s <> EmptyString -> all_digits s = true -> n_of_string s = Some (dec_value s).
Proof.
  intros Hne H. destruct (digit_string_uint s H) as [d [Hd Hv]].
  unfold n_of_string, NilZero.uint_of_string.
  destruct s as [|c r]; [congruence|].
  rewrite Hd. rewrite of_uint_uval. unfold dec_value. rewrite Hv. reflexivity.
Qed.

Lemma num_terminal_digits s : num_terminal s = true -> s <> EmptyString /\ all_digits s = true.
Proof.
  destruct s as [|c r]; cbn [num_terminal]; [discriminate|].
  destruct (Ascii.eqb c "0") eqn:E.
  - apply Ascii.eqb_eq in E. subst c. destruct r; [|discriminate]. intros _. split; [discriminate|reflexivity].
  - intro H. split; [discriminate|]. exact H.
Qed.

Definition i64_max_N : N := 9223372036854775807%N.

(* every digit string is mapped to a value in [0, 2^63) or to the range error, and to the error exactly
   when its decimal value exceeds i64::MAX *)
Lemma num_of_digits_spec s :
  s <> EmptyString -> all_digits s = true ->
  ((dec_value s <= i64_max_N)%N /\ num_of_digits s = NumOk (Z.of_N (dec_value s)))
  \/ ((i64_max_N < dec_value s)%N /\ num_of_digits s = NumRange).
Proof.
  intros Hne H. unfold num_of_digits. rewrite (n_of_string_digits s Hne H).
  unfold lit_ok, i64_max. fold i64_max_N.
  destruct (N.leb_spec (dec_value s) i64_max_N) as [Hle|Hgt]; [left|right]; split; auto.
Qed.

Lemma num_of_digits_range s z : num_of_digits s = NumOk z -> (0 <= z < 2 ^ 63)%Z.
Proof.
  unfold num_of_digits. destruct (n_of_string s) as [k|]; [|discriminate].
  unfold lit_ok, i64_max. destruct (N.leb_spec k 9223372036854775807%N) as [Hle|Hgt]; [|discriminate].
  intros [= <-]. change (2 ^ 63)%Z with 9223372036854775808%Z. lia.
Qed.

(* the negated literal `- Num` of the grammar's Lit rule stays in the i64 range as well (no overflow in `-n`) *)
Lemma neg_num_in_range s z : num_of_digits s = NumOk z -> (- 2 ^ 63 < - z <= 0)%Z.
Proof. intro H. apply num_of_digits_range in H. lia. Qed.

(* place in the lexer model: a maximal digit run that starts with a non-zero digit is one TNum token carrying its value *)
Lemma take_while_digits s : all_digits (take_while is_digit s) = true.
Proof. induction s as [|c r IH]; cbn; [reflexivity|]. destruct (is_digit c) eqn:E; cbn; [rewrite E, IH|]; reflexivity. Qed.

Lemma is_digit_not_letter c : is_digit c = true -> is_lower c || is_upper c = false.
Proof.
  unfold is_digit, is_lower, is_upper. cbv zeta. intro H. apply andb_true_iff in H as [_ H]. apply Nat.leb_le in H.
  apply orb_false_iff; split; apply andb_false_iff; left; apply Nat.leb_gt; lia.
Qed.

Lemma scan_number c r :
  is_digit c = true -> c <> "0"%char ->
  scan (String c r) = LTok (TNum (dec_value (take_while is_digit (String c r)))) (skip_while is_digit (String c r)).
Proof.
  intros Hd Hz. unfold scan.
  rewrite (is_digit_not_letter c Hd).
  destruct (Ascii.eqb c "0") eqn:E; [apply Ascii.eqb_eq in E; contradiction|].
  rewrite Hd.
  rewrite n_of_string_digits; [reflexivity| |apply take_while_digits].
  cbn [take_while]. rewrite Hd. discriminate.
Qed.

(* place in the parser model: the two Lit productions *)
Lemma p_term1_num_total n k r :
  p_term1 (S n) (TNum k :: r) = if lit_ok k then Some (FLit (Z.of_N k), r) else None.
Proof. reflexivity. Qed.
Lemma p_term1_neg_total n k r :
  p_term1 (S n) (TSym SMinus :: TNum k :: r) = if lit_ok k then Some (FLit (- Z.of_N k), r) else None.
Proof. reflexivity. Qed.

Lemma parser_literal_both n k r :
  p_term1 (S n) (TNum k :: r) = (if lit_ok k then Some (FLit (Z.of_N k), r) else None) /\
  p_term1 (S n) (TSym SMinus :: TNum k :: r) = (if lit_ok k then Some (FLit (- Z.of_N k), r) else None).
Proof. split; [apply p_term1_num_total | apply p_term1_neg_total]. Qed.

(* the composition on text: lexing a number and applying the action is num_of_digits on the digit run *)
Lemma lex_then_action c r n rest :
  is_digit c = true -> c <> "0"%char ->
  let digits := take_while is_digit (String c r) in
  match scan (String c r) with
  | LTok t _ => p_term1 (S n) (t :: rest) =
                  match num_of_digits digits with NumOk z => Some (FLit z, rest) | NumRange => None end
  | _ => False
  end.
Proof.
  intros Hd Hz digits. rewrite (scan_number c r Hd Hz). fold digits.
  rewrite p_term1_num_total. unfold num_of_digits.
  rewrite n_of_string_digits; [|subst digits; cbn [take_while]; rewrite Hd; discriminate|apply take_while_digits].
  destruct (lit_ok (dec_value digits)); reflexivity.
Qed.

(* 2. the proved stage-totality results, chained.  Each stage's hypothesis is the one of its own theorem;
   that the hypothesis of a stage follows from the previous stage's output is NOT proved here (see Props/C18.v). *)
From SCC Require Lang.CoreSyn Lang.AxSyn Model.Backend Model.Focus Model.FocusCheck Sem.FsCheck Model.Shrink
  Model.Linearize Model.LinCheck Proof.FocusExtra Proof.ShrinkProof Proof.LinearizeProof.

Theorem middle_end_total :
  forall c : CoreSyn.cprog,
    FocusCheck.focus_wf c = true ->
    exists f, Focus.focus_prog c = Backend.Ok f /\
      (FsCheck.wt_fs f = true ->
       exists a, Shrink.shrink_prog f = Shrink.SOk a /\
         (LinCheck.prog_ok a = true -> LinCheck.lin_check_prog (Linearize.linearize a) = true)).
Proof.
  intros c Hc.
  destruct (FocusExtra.focus_total_thm c Hc) as [f Hf].
  exists f. split; [exact Hf|].
  intro Hw. destruct (ShrinkProof.shrink_total f Hw) as [a Ha].
  exists a. split; [exact Ha|].
  apply LinearizeProof.linearize_exact.
Qed.

(* 3. code generation (theorems of C12, Proof/Codegen{Total,X86,A64,RV}.v): on a program accepted by the ordered
   linear discipline the three code generators return Ok within capacity; contrapositive: an error of a code
   generator on such a program means that the program is outside the capacity predicate (too many live variables
   for the back end's temporaries, more parameters of main than argument registers, print on RISC-V). *)
From SCC Require Model.Capacity Model.X86 Model.A64 Model.RV Proof.CodegenX86 Proof.CodegenA64 Proof.CodegenRV.

Lemma x86_error_means_capacity (l : AxSyn.prog) (lc : N) msg :
  LinCheck.lin_check_prog l = true -> X86.x86_compile l lc = Backend.Err msg -> Capacity.within_capacity_x86 l = false.
Proof.
  intros L E. destruct (Capacity.within_capacity_x86 l) eqn:W; [|reflexivity].
  destruct (CodegenX86.x86_codegen_total l lc L W) as (code & lc' & E'). congruence.
Qed.
Lemma a64_error_means_capacity (l : AxSyn.prog) (lc : N) msg :
  LinCheck.lin_check_prog l = true -> A64.a64_compile l lc = Backend.Err msg -> Capacity.within_capacity_a64 l = false.
Proof.
  intros L E. destruct (Capacity.within_capacity_a64 l) eqn:W; [|reflexivity].
  destruct (CodegenA64.a64_codegen_total l lc L W) as (code & lc' & E'). congruence.
Qed.
Lemma rv_error_means_capacity (l : AxSyn.prog) (lc : N) msg :
  LinCheck.lin_check_prog l = true -> RV.rv_compile l lc = Backend.Err msg -> Capacity.within_capacity_rv l = false.
Proof.
  intros L E. destruct (Capacity.within_capacity_rv l) eqn:W; [|reflexivity].
  destruct (CodegenRV.rv_codegen_total l lc L W) as (code & lc' & E'). congruence.
Qed.

Lemma codegen_error_means_capacity : forall (l : AxSyn.prog) (lc : N) msg,
  LinCheck.lin_check_prog l = true ->
  (X86.x86_compile l lc = Backend.Err msg -> Capacity.within_capacity_x86 l = false) /\
  (A64.a64_compile l lc = Backend.Err msg -> Capacity.within_capacity_a64 l = false) /\
  (RV.rv_compile l lc = Backend.Err msg -> Capacity.within_capacity_rv l = false).
Proof.
  intros l lc msg L. split; [|split]; intro E.
  - exact (x86_error_means_capacity l lc msg L E).
  - exact (a64_error_means_capacity l lc msg L E).
  - exact (rv_error_means_capacity l lc msg L E).
Qed.

(* 4. the composition of C12 (Proof/WtPreserve.v) without the intermediate typing facts *)
From SCC Require Model.Check Model.Fun2Core Proof.WtPreserve.
Lemma pipeline_total_partial_lemma :
  WtPreserve.H_fun2core_wt -> WtPreserve.H_focus_wt -> WtPreserve.H_shrink_wt ->
  forall src p, Check.check src = Check.COk p -> Fun2Core.barendregt p = true ->
  exists c f a,
    Fun2Core.compile_prog p = Fun2Core.Ok c /\
    Focus.focus_prog c = Backend.Ok f /\
    Shrink.shrink_prog f = Shrink.SOk a /\
    let l := Linearize.linearize a in
    LinCheck.lin_check_prog l = true /\
    (forall lc, Capacity.within_capacity_x86 l = true -> exists code lc', X86.x86_compile l lc = Backend.Ok (code, Capacity.main_arity l, lc')) /\
    (forall lc, Capacity.within_capacity_a64 l = true -> exists code lc', A64.a64_compile l lc = Backend.Ok (code, Capacity.main_arity l, lc')) /\
    (forall lc, Capacity.within_capacity_rv l = true -> exists code lc', RV.rv_compile l lc = Backend.Ok (code, Capacity.main_arity l, lc')).
Proof.
  intros H1 H2 H3 src p CK BA.
  destruct (WtPreserve.pipeline_wt_partial_lemma H1 H2 H3 src p CK BA) as (c & f & a & EC & _ & EF & _ & EA & _ & _ & R).
  exists c, f, a. split; [exact EC|]. split; [exact EF|]. split; [exact EA|]. exact R.
Qed.
