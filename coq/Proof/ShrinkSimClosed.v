(* Proof/ShrinkSimClosed.v (C04, fragment 2) - semantic preservation with no hypothesis on the output:
   the typing theorem ([shrink_typing_fragment2], Proof/ShrinkTyProg.v) provides wt_ax of the shrunk
   program, at the price of the guard decls_ok.  Names: [shrink_correct_fragment2_closed] here is
   C04_shrink_correct_fragment2; [shrink_correct_fragment2] (Proof/ShrinkSimProg.v, wt_ax of the output
   as a hypothesis, no decls_ok) is C04_shrink_correct_fragment2_wt_ax. *)
From Coq Require Import List ZArith NArith String Bool.
From SCC Require Import Sem.FsFrag2 Base.Sexp Lang.CoreSyn Lang.AxSyn Sem.AxSem Sem.FsCheck Model.Shrink
     Proof.ShrinkSem Proof.ShrinkRn Proof.ShrinkSimProg Proof.ShrinkTyProg.
From SCC Require Sem.AxCheck Sem.CoreSem.
Import ListNotations.

Theorem shrink_correct_fragment2_closed : forall p q n args o,
  frag2_prog p = true -> decls_ok p = true -> wt_fs p = true -> unique_binders p = true -> ids_bounded p = true ->
  shrink_prog p = SOk q ->
  CoreSem.run_fs n p args = o -> good o ->
  exists m, run_named m q args = o.
Proof.
  intros p q n args o Hfr Hd WF UB IB Hsh Hrun Hg.
  assert (Hn : names_ok p = true) by (unfold frag2_prog in Hfr; now apply andb_prop in Hfr as [? _]).
  destruct (shrink_typing_fragment2 p q Hn Hd WF UB IB Hsh) as [CK _].
  eapply shrink_correct_fragment2; eauto. unfold AxCheck.wt_ax. now rewrite CK.
Qed.
