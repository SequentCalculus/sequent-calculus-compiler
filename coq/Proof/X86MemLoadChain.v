(* `x_load` of any number of variables (objects chained over several blocks, memory.rs load_fields with
   the TEMPORARY_TEMP evacuation) refines `Heap.load_object (nlinks n) p`.
     x86_load_fields_ok     the recursion of load_fields, against the abstract walk `lf_abs` in emission order;
     x86_load_frame         x_load = Heap.load_object (nlinks n) p, with its frame: no heap word other than a
                            block header changes, HEAP stays defined, FREE is unchanged, stack words outside
                            the spill slots of the frame are unchanged.  This is the theorem (what
                            Proof/X86HSimLoad.v uses); x86_load_ok (C09_x86_load, without any frame) and x86_load_full
                            (Proof/X86MemLoadFull.v, without the stack frame) are its projections. *)
From Coq Require Import List ZArith NArith String Bool Lia FMapPositive.
From SCC Require Import Base.Sexp Lang.AxSyn Sem.AxSem Model.Backend Model.X86 Sem.X86Sem Generated.Constants
  Proof.X86State Proof.X86Sel Proof.X86Mem Proof.X86MemFrame Proof.X86MemStore Proof.X86MemLoad Proof.X86MemStoreChain Proof.X86StackFrame.
From SCC Require Model.Heap.
Import ListNotations.
Open Scope list_scope.
Open Scope Z_scope.

(* the abstract effect of the code of one block, in emission order *)
Definition blk_abs (m : load_mode) (w : Z -> Z) (next : list binding) (q : Z) (cap : N) (a : Heap.st) : Heap.st :=
  lv_abs m w (rev next) q cap (match m with Release => Heap.release q a | Share => a end).

(* the walk of load_fields over the blocks of an object, in emission order *)
(* the pointer found after the blocks of a call (the link of its last block) *)
Fixpoint lf_ptr (fuel : nat) (w : Z -> Z) (to_load : ctx) (bp : block_position) (p : Z) : Z :=
  match fuel with
  | O => p
  | S f => match to_load with
           | [] => p
           | _ => w (lf_ptr f w (firstn (rest_len (List.length to_load) (3 - bp_n bp)) to_load) Other p + 48)
           end
  end.
Fixpoint lf_abs (fuel : nat) (m : load_mode) (w : Z -> Z) (to_load : ctx) (bp : block_position) (p : Z) (a : Heap.st) : Heap.st :=
  match fuel with
  | O => a
  | S f => match to_load with
           | [] => a
           | _ => let rl := rest_len (List.length to_load) (3 - bp_n bp) in
                  blk_abs m w (skipn rl to_load) (lf_ptr f w (firstn rl to_load) Other p) (3 - bp_n bp)
                          (lf_abs f m w (firstn rl to_load) Other p a)
           end
  end.
(* every block pointer is a block, the pointer slots that get shared are null or blocks *)
Fixpoint lf_ok (fuel : nat) (m : load_mode) (w : Z -> Z) (to_load : ctx) (bp : block_position) (p : Z) : Prop :=
  match fuel with
  | O => True
  | S f => match to_load with
           | [] => True
           | _ => let rl := rest_len (List.length to_load) (3 - bp_n bp) in
                  lf_ok f m w (firstn rl to_load) Other p /\
                  is_blk (lf_ptr f w (firstn rl to_load) Other p) /\
                  lv_kids m w (rev (skipn rl to_load)) (lf_ptr f w (firstn rl to_load) Other p) (3 - bp_n bp)
           end
  end.
(* the addresses of the field slots, left to right *)
Definition blk_addrs (q : Z) (cap : N) : list Z := if (cap =? 3)%N then [q + 16; q + 32; q + 48] else [q + 16; q + 32].
Fixpoint lf_addrs (fuel : nat) (w : Z -> Z) (to_load : ctx) (bp : block_position) (p : Z) : list Z :=
  match fuel with
  | O => []
  | S f => match to_load with
           | [] => []
           | _ => let rl := rest_len (List.length to_load) (3 - bp_n bp) in
                  lf_addrs f w (firstn rl to_load) Other p ++ blk_addrs (lf_ptr f w (firstn rl to_load) Other p) (3 - bp_n bp)
           end
  end.

Lemma blk_addrs_nth q cap j : (cap = 3 \/ cap = 2)%N -> (j < cap)%N -> nth (N.to_nat j) (blk_addrs q cap) 0 = q + field_offset Fst j.
Proof.
  intros [-> | ->] Hj; unfold blk_addrs; cbn [N.eqb Pos.eqb].
  - assert (Hc : (j = 0 \/ j = 1 \/ j = 2)%N) by lia. destruct Hc as [->|[->| ->]]; reflexivity.
  - assert (Hc : (j = 0 \/ j = 1)%N) by lia. destruct Hc as [->| ->]; reflexivity.
Qed.
Lemma blk_addrs_length q cap : (cap = 3 \/ cap = 2)%N -> List.length (blk_addrs q cap) = N.to_nat cap.
Proof. intros [-> | ->]; reflexivity. Qed.
Section LoadChain2.
Variable im : image.

Lemma load_values_pos bsrev : forall epr R ff m lc lv lc',
  load_values bsrev epr R ff m lc = Ok (lv, lc') -> bsrev <> [] ->
  (2 * N.of_nat (List.length epr + List.length bsrev) < MAXPOS + 1)%N.
Proof.
  destruct bsrev as [|b rest]; intros epr R ff m lc lv lc' H Hne; [contradiction|].
  cbn [load_values] in H.
  destruct (load_value b (epr ++ rev rest) R (ff - 1) m lc) as [[c1 lc1]|] eqn:E1; [|discriminate].
  destruct (load_value_shape _ _ _ _ _ _ _ _ E1) as (K & _). rewrite app_length, rev_length in K. cbn [List.length]. lia.
Qed.

Lemma load_fields_unfold fuel to_load existing bp m freed lc cs fr lc' :
  to_load <> [] -> load_fields (S fuel) to_load existing bp m freed lc = Ok (cs, fr, lc') ->
  let rl := rest_len (List.length to_load) (3 - bp_n bp) in
  let epr := existing ++ firstn rl to_load in
  let t := tpos (2 * N.of_nat (List.length epr)) in
  let klink := (2 * N.of_nat (List.length (existing ++ to_load)))%N in
  exists c0 freed0 lc0 lv,
    load_fields fuel (firstn rl to_load) existing Other m freed lc = Ok (c0, freed0, lc0) /\
    (2 * N.of_nat (List.length epr) < MAXPOS)%N /\
    (bp = Other -> (klink < MAXPOS)%N) /\
    load_values (rev (skipn rl to_load)) epr (blk_reg_of t) (3 - bp_n bp) m lc0 = Ok (lv, lc') /\
    cs = c0 ++ lf_blk_code t freed0 bp m klink lv /\
    fr = match t with XR _ => freed0 | XS _ => true end.
Proof.
  intros Hne H rl epr t klink. cbn [load_fields] in H. destruct to_load as [|x r]; [contradiction|].
  change (FIELDS_PER_BLOCK - bp_n bp)%N with (3 - bp_n bp)%N in H.
  fold (rest_len (List.length (x :: r)) (3 - bp_n bp)) in H. fold rl in H. fold epr in H.
  destruct (load_fields fuel (firstn rl (x :: r)) existing Other m freed lc) as [[[c0 freed0] lc0]|] eqn:E0; [|discriminate].
  cbn [rbind] in H.
  destruct (x_fresh Fst epr) as [t'|] eqn:Et; [|discriminate]. cbn [rbind] in H.
  apply x_fresh_tpos in Et as [-> Hk]. cbn [tnum_n] in *. rewrite N.add_0_r in *. fold t in H.
  exists c0, freed0, lc0.
  assert (Hlink : forall R c2, (match bp with Other => load_field Fst (existing ++ x :: r) R (FIELDS_PER_BLOCK - 1) | Last => Ok [] end) = Ok c2 ->
            c2 = link_load_code bp klink R /\ (bp = Other -> (klink < MAXPOS)%N)).
  { intros R c2 Hc. destruct bp; cbn [link_load_code].
    - inversion Hc. split; [reflexivity|discriminate].
    - change (FIELDS_PER_BLOCK - 1)%N with 2%N in Hc. apply load_field_shape in Hc as [K ->]. cbn [tnum_n] in *. rewrite N.add_0_r in *.
      split; [reflexivity|intros _; exact K]. }
  destruct t as [mr|mp] eqn:Etp; cbn [blk_reg_of lf_blk_code].
  - destruct (match bp with Other => load_field Fst (existing ++ x :: r) mr (FIELDS_PER_BLOCK - 1) | Last => Ok [] end) as [c2|] eqn:E2; [|discriminate].
    cbn [rbind] in H. destruct (Hlink _ _ E2) as [-> HK].
    destruct (load_values (rev (skipn rl (x :: r))) epr mr (3 - bp_n bp) m lc0) as [[c3 lc3]|] eqn:E3; [|discriminate]. cbn [rbind] in H.
    inversion H; subst. exists c3. auto 7.
  - destruct (match bp with Other => load_field Fst (existing ++ x :: r) TEMPORARY_TEMP (FIELDS_PER_BLOCK - 1) | Last => Ok [] end) as [c2|] eqn:E2; [|discriminate].
    cbn [rbind] in H. destruct (Hlink _ _ E2) as [-> HK].
    destruct (load_values (rev (skipn rl (x :: r))) epr TEMPORARY_TEMP (3 - bp_n bp) m lc0) as [[c3 lc3]|] eqn:E3; [|discriminate]. cbn [rbind] in H.
    inversion H; subst. exists c3. split; [reflexivity|]. split; [exact Hk|]. split; [exact HK|]. split; [reflexivity|]. split; [|reflexivity].
    f_equal. rewrite <- !app_assoc. destruct freed0; destruct m; destruct bp; reflexivity.
Qed.

Definition frL (bp : block_position) (fr : bool) : bool := match bp with Last => false | Other => fr end.

Lemma lf_addrs_length w p : forall fuel to_load bp, (List.length to_load < fuel)%nat ->
  (List.length to_load <= List.length (lf_addrs fuel w to_load bp p))%nat.
Proof.
  induction fuel as [|f IH]; intros to_load bp Hf; [lia|]. cbn [lf_addrs].
  destruct to_load as [|x r]; [cbn; lia|].
  set (tl := x :: r) in *. set (cap := (3 - bp_n bp)%N). set (rl := rest_len (List.length tl) cap).
  assert (Hcap : (cap = 3 \/ cap = 2)%N) by (unfold cap; destruct bp; cbn; auto).
  assert (Hrl : rl = (List.length tl - N.to_nat cap)%nat) by apply rest_len_val.
  rewrite app_length, blk_addrs_length by exact Hcap.
  specialize (IH (firstn rl tl) Other). rewrite firstn_length in IH.
  assert (Hn : (1 <= List.length tl)%nat) by (unfold tl; cbn; lia).
  specialize (IH ltac:(lia)). lia.
Qed.

Lemma blk_abs_congr m w w' next q cap a a' :
  st_eqB a a' -> (forall j, (j < cap)%N -> w (q + field_offset Fst j) = w' (q + field_offset Fst j)) ->
  is_blk q -> (N.of_nat (List.length next) <= cap)%N -> lv_kids m w (rev next) q cap ->
  st_eqB (blk_abs m w next q cap a) (blk_abs m w' next q cap a').
Proof.
  intros E Hw Hb Hlen K. unfold blk_abs. apply lv_abs_congr; auto.
  - destruct m; [apply release_st_eqB; auto|exact E].
  - now rewrite rev_length.
Qed.

Lemma x86_load_fields_ok : forall fuel to_load existing bp m freed lc cs fr lc' pos s sp p h F,
  load_fields fuel to_load existing bp m freed lc = Ok (cs, fr, lc') ->
  (List.length to_load < fuel)%nat -> (bp = Last -> to_load <> []) ->
  code_at im pos cs -> labels_at im pos cs -> frame_ok s sp ->
  (freed = true -> (12 <= 2 * N.of_nat (List.length existing))%N) ->
  lgetL s sp freed (tpos (2 * N.of_nat (List.length existing))) = Some p -> rget s HEAP = Some h ->
  lf_ok fuel m (hword s) to_load bp p ->
  (m = Share -> forall x, is_blk x -> min_int <= hword s x /\ hword s x + Z.of_nat (List.length to_load) <= max_int) ->
  exists s', steps im pos s (pnth pos (List.length cs)) s' /\
    st_eqB (abs_heap F s') (lf_abs fuel m (hword s) to_load bp p (abs_heap F s)) /\
    (frL bp fr = true -> (12 <= 2 * N.of_nat (List.length existing + List.length to_load))%N) /\
    (bp = Other -> lgetL s' sp (frL bp fr) (tpos (2 * N.of_nat (List.length existing + List.length to_load))) =
                   Some (lf_ptr fuel (hword s) to_load bp p)) /\
    (forall i b, nth_error to_load i = Some b ->
       let A := lf_addrs fuel (hword s) to_load bp p in
       let a := nth (List.length A - List.length to_load + i) A 0 in
       lgetL s' sp (frL bp fr) (tpos (2 * N.of_nat (List.length existing + i) + 1)) = Some (hword s (a + 8)) /\
       (bchi b <> Ext -> lgetL s' sp (frL bp fr) (tpos (2 * N.of_nat (List.length existing + i))) = Some (hword s a))) /\
    (forall l, untouched l ->
       (forall k, (2 * N.of_nat (List.length existing) <= k <= 2 * N.of_nat (List.length existing + List.length to_load))%N -> l <> tpos k) ->
       lgetL s' sp (frL bp fr) l = lgetL s sp freed l) /\
    nonblk_same s s' /\
    (m = Share -> forall x, is_blk x -> hword s x <= hword s' x <= hword s x + Z.of_nat (List.length to_load)) /\
    (exists h', rget s' HEAP = Some h') /\ out s' = out s /\ frame_ok s' sp /\ stack_frame s s' sp.
Proof.
  induction fuel as [|fuel IH]; intros to_load existing bp m freed lc cs fr lc' pos s sp p h F Hlf Hfuel HLast HC HL FR Hfr P Hh OK Room; [lia|].
  set (E := List.length existing) in *.
  destruct to_load as [|x r].
  - (* nothing to load *)
    destruct bp; [specialize (HLast eq_refl); contradiction|].
    cbn [load_fields] in Hlf. inversion Hlf; subst cs fr lc'. cbn [frL List.length pnth lf_abs lf_ptr]. rewrite Nat.add_0_r.
    exists s. split; [apply steps_refl|]. split; [apply st_eqB_refl|]. split; [exact Hfr|]. split; [intros _; exact P|].
    split; [intros i b Hi; destruct i; discriminate|]. split; [auto|]. split; [apply nonblk_same_refl|]. split; [intros; lia|]. split; [eauto|]. split; [reflexivity|]. split; [exact FR|apply stack_frame_refl].
  - set (to_load := x :: r) in *. set (n := List.length to_load) in *.
    assert (Hne : to_load <> []) by discriminate.
    destruct (load_fields_unfold fuel to_load existing bp m freed lc cs fr lc' Hne Hlf) as (c0 & freed0 & lc0 & lv & Hlf0 & Kt & Hklm & Hlv & -> & Efr).
    fold n in Hlf0, Kt, Hlv, Efr, HC, HL, Hklm |- *.
    set (cap := (3 - bp_n bp)%N) in *. set (rl := rest_len n cap) in *.
    set (rest := firstn rl to_load) in *. set (next := skipn rl to_load) in *.
    assert (Hcap : (cap = 3 \/ cap = 2)%N) by (unfold cap; destruct bp; cbn; auto).
    assert (Hrl : rl = (n - N.to_nat cap)%nat) by apply rest_len_val.
    assert (Hn : (1 <= n)%nat) by (unfold n, to_load; cbn; lia).
    assert (Lrest : List.length rest = rl) by (unfold rest; rewrite firstn_length; fold n; lia).
    assert (Lnext : List.length next = (n - rl)%nat) by (unfold next; rewrite skipn_length; reflexivity).
    assert (Lepr : List.length (existing ++ rest) = (E + rl)%nat) by (rewrite app_length, Lrest; reflexivity).
    assert (Lall : List.length (existing ++ to_load) = (E + n)%nat) by (rewrite app_length; reflexivity).
    assert (Hsplit : to_load = rest ++ next) by (unfold rest, next; now rewrite firstn_skipn).
    assert (Hnext : next <> []) by (intros Hx; rewrite Hx in Lnext; cbn [List.length] in Lnext; lia).
    rewrite Lepr, Lall in *.
    cbn [lf_ok] in OK. fold n cap rl rest next in OK. destruct OK as (OK0 & Hbq & Kids).
    cbn [lf_abs lf_ptr lf_addrs]. fold n cap rl rest next.
    set (q := lf_ptr fuel (hword s) rest Other p) in *.
    apply code_at_app2 in HC as [HC0 HC1]. apply labels_at_app2 in HL as [HL0 HL1].
    (* the blocks before *)
    destruct (IH rest existing Other m freed lc c0 freed0 lc0 pos s sp p h F Hlf0 ltac:(rewrite Lrest; lia) ltac:(discriminate) HC0 HL0 FR Hfr P Hh OK0)
      as (s1 & ST1 & EQ1 & Fr1 & Lk1 & V1 & Oth1 & NB1 & Hd1 & (h1 & H1) & O1 & FR1 & SF1).
    { intros Hm x' Hx'. destruct (Room Hm x' Hx'). rewrite Lrest. fold n in H0. lia. }
    cbn [frL] in Fr1, Lk1, V1, Oth1. rewrite Lrest in *. fold E q in Fr1, Lk1, V1, Oth1.
    specialize (Lk1 eq_refl).
    assert (Hfld1 : forall t j, (j < 3)%N -> hword s1 (q + field_offset t j) = hword s (q + field_offset t j)).
    { intros t j Hj. apply NB1. now apply field_not_blk. }
    (* this block *)
    assert (B3 : (N.of_nat (n - rl) <= cap)%N) by lia.
    assert (B4 : (2 * N.of_nat (E + n))%N = (2 * N.of_nat (E + rl + (n - rl)))%N) by (f_equal; f_equal; lia).
    assert (B14 : lv_kids m (hword s1) (rev next) q cap).
    { eapply lv_kids_congr; [|rewrite rev_length, Lnext; lia|exact Kids]. intros j Hj. symmetry. apply Hfld1. lia. }
    assert (B15 : m = Share -> forall x, is_blk x -> min_int <= hword s1 x /\ hword s1 x + Z.of_nat (n - rl) <= max_int).
    { intros Hm x' Hx'. destruct (Room Hm x' Hx') as [R1 R2]. destruct (Hd1 Hm x' Hx') as [D1 D2]. fold n in R2. lia. }
    pose proof (x86_lf_blk_ok im (pnth pos (List.length c0)) bp next (existing ++ rest) m lc0 lv lc' freed0 (2 * N.of_nat (E + n)) s1 sp q h1 F) as BL.
    cbv zeta in BL. rewrite Lepr, Lnext in BL. fold cap in BL.
    destruct (BL Hlv Hnext B3 B4 Kt Hklm HC1 HL1 FR1 Fr1 Lk1 Hbq H1 B14 B15) as (s2 & ST2 & EQ2 & Lk2 & V2 & Oth2 & NB2 & Hd2 & HH2 & O2 & FR2 & SF2).
    clear BL.
    assert (Hfa : freed_after (tpos (2 * N.of_nat (E + rl))) freed0 bp = frL bp fr).
    { rewrite Efr. destruct (tpos (2 * N.of_nat (E + rl))) as [mr|mp] eqn:Et; cbn [freed_after frL]; destruct bp; auto.
      destruct freed0; [|reflexivity]. specialize (Fr1 eq_refl). apply tpos_reg in Et as [_ Hlt]. lia. }
    rewrite Hfa in *.
    exists s2. split; [|split; [|split; [|split; [|split; [|split; [|split; [|split; [|split; [|split; [|split]]]]]]]]]].
    + eapply steps_app_len; eassumption.
    + eapply st_eqB_trans; [exact EQ2|].
      apply blk_abs_congr; [exact EQ1|intros j Hj; apply Hfld1; lia|exact Hbq|rewrite Lnext; lia|exact B14].
    + intros Hf. destruct bp; cbn [frL] in Hf; [discriminate|]. rewrite Efr in Hf.
      destruct (tpos (2 * N.of_nat (E + rl))) as [mr|mp] eqn:Et.
      * specialize (Fr1 Hf). lia.
      * apply tpos_slot in Et as [_ Ht]. lia.
    + intros Ho. rewrite (Lk2 Ho). f_equal. apply NB1. apply not_blk_off; [exact Hbq|lia].
    + intros i b Hi. set (A := lf_addrs fuel (hword s) rest Other p ++ blk_addrs q cap).
      change (match to_load with [] => [] | _ :: _ => A end) with A.
      set (a := nth (List.length A - n + i) A 0).
      assert (LA : (rl <= List.length (lf_addrs fuel (hword s) rest Other p))%nat).
      { rewrite <- Lrest at 1. apply lf_addrs_length. rewrite Lrest. lia. }
      assert (LB : List.length (blk_addrs q cap) = N.to_nat cap) by (now apply blk_addrs_length).
      destruct (Nat.lt_ge_cases i rl) as [Hlt|Hge].
      * (* a variable of an earlier block *)
        assert (Hi' : nth_error rest i = Some b).
        { rewrite Hsplit in Hi. rewrite nth_error_app1 in Hi by (rewrite Lrest; exact Hlt). exact Hi. }
        destruct (V1 i b Hi') as [VS VF].
        assert (Ea : a = nth (List.length (lf_addrs fuel (hword s) rest Other p) - rl + i) (lf_addrs fuel (hword s) rest Other p) 0).
        { unfold a, A. rewrite app_length, LB. rewrite app_nth1 by lia. f_equal. lia. }
        rewrite Ea.
        assert (U : forall k, (k < 2 * N.of_nat (E + rl))%N -> untouched (tpos k) /\
                     (forall k', (2 * N.of_nat (E + rl) <= k' <= 2 * N.of_nat (E + n))%N -> tpos k <> tpos k')).
        { intros k Hk. destruct (tpos_not_reserved k) as (_ & U2 & U3 & _ & U5).
          split; [split; [apply tpos_loc_ok; lia|auto]|]. intros k' Hk'. apply tpos_neq. lia. }
        split; [|intros Hx].
        -- destruct (U (2 * N.of_nat (E + i) + 1)%N ltac:(lia)) as [U1 U2]. rewrite (Oth2 _ U1 U2). exact VS.
        -- destruct (U (2 * N.of_nat (E + i))%N ltac:(lia)) as [U1 U2]. rewrite (Oth2 _ U1 U2). exact (VF Hx).
      * (* a variable of this block *)
        assert (Hi' : nth_error next (i - rl) = Some b).
        { rewrite Hsplit in Hi. rewrite nth_error_app2 in Hi by (rewrite Lrest; exact Hge). now rewrite Lrest in Hi. }
        assert (Hi'' : (i - rl < n - rl)%nat) by (rewrite <- Lnext; apply nth_error_Some; congruence).
        destruct (V2 _ b Hi') as [VS VF].
        replace (E + rl + (i - rl))%nat with (E + i)%nat in VS, VF by lia.
        set (j := (cap - N.of_nat (n - rl) + N.of_nat (i - rl))%N) in *.
        assert (Hj : (j < cap)%N) by (unfold j; lia).
        assert (Ea : a = q + field_offset Fst j).
        { unfold a, A. rewrite app_length, LB. rewrite app_nth2 by lia.
          rewrite <- (blk_addrs_nth q cap j Hcap Hj). f_equal. unfold j. lia. }
        rewrite Ea. rewrite <- Z.add_assoc, <- fo_snd_fst. rewrite <- !Hfld1 by lia. auto.
    + intros l U Hr. rewrite Oth2; [apply Oth1; [exact U|]|exact U|]; intros k Hk; apply Hr; lia.
    + eapply nonblk_same_trans; eassumption.
    + intros Hm x' Hx'. destruct (Hd1 Hm x' Hx'), (Hd2 Hm x' Hx'). fold n. lia.
    + exact HH2.
    + congruence.
    + exact FR2.
    + exact (stack_frame_trans _ _ _ _ SF1 SF2).
Qed.
End LoadChain2.

(* the walk only reads link and field words, which are not block headers *)
Lemma next_len_le n cap : (cap = 3 \/ cap = 2)%N -> (N.of_nat (n - rest_len n cap) <= cap)%N.
Proof. intros H. rewrite rest_len_val. lia. Qed.

Lemma lf_ext m w w' : (forall a, ~ is_blk a -> w' a = w a) ->
  forall fuel to_load bp p a a', lf_ok fuel m w to_load bp p -> st_eqB a a' ->
    lf_ptr fuel w' to_load bp p = lf_ptr fuel w to_load bp p /\
    lf_addrs fuel w' to_load bp p = lf_addrs fuel w to_load bp p /\
    lf_ok fuel m w' to_load bp p /\
    st_eqB (lf_abs fuel m w' to_load bp p a) (lf_abs fuel m w to_load bp p a').
Proof.
  intros Hw. induction fuel as [|f IH]; intros to_load bp p a a' OK E; cbn [lf_ptr lf_addrs lf_ok lf_abs] in *; auto.
  destruct to_load as [|x r]; auto.
  set (tl := x :: r) in *. set (cap := (3 - bp_n bp)%N) in *. set (rl := rest_len (List.length tl) cap) in *.
  assert (Hcap : (cap = 3 \/ cap = 2)%N) by (unfold cap; destruct bp; cbn; auto).
  destruct OK as (OK0 & Hbq & Kids).
  destruct (IH (firstn rl tl) Other p a a' OK0 E) as (E1 & E2 & E3 & E4). rewrite E1, E2.
  set (q := lf_ptr f w (firstn rl tl) Other p) in *.
  assert (Hfld : forall j, (j < cap)%N -> w (q + field_offset Fst j) = w' (q + field_offset Fst j)).
  { intros j Hj. symmetry. apply Hw. apply field_not_blk; auto. lia. }
  assert (Lnext : (N.of_nat (List.length (skipn rl tl)) <= cap)%N) by (rewrite skipn_length; now apply next_len_le).
  assert (K' : lv_kids m w' (rev (skipn rl tl)) q cap).
  { eapply lv_kids_congr; [exact Hfld|rewrite rev_length; exact Lnext|exact Kids]. }
  split; [apply Hw; apply not_blk_off; [exact Hbq|lia]|]. split; [reflexivity|]. split; [auto|].
  apply blk_abs_congr; auto. intros j Hj. symmetry. now apply Hfld.
Qed.

Lemma lf_ok_release m w : forall fuel to_load bp p, lf_ok fuel m w to_load bp p -> lf_ok fuel Release w to_load bp p.
Proof.
  induction fuel as [|f IH]; intros to_load bp p OK; cbn [lf_ok] in *; auto.
  destruct to_load as [|x r]; auto. destruct OK as (OK0 & Hbq & _). split; [now apply IH|]. split; [exact Hbq|apply lv_kids_release].
Qed.

(* every field slot address is a field of a block *)
Lemma blk_addrs_in q cap a : (cap = 3 \/ cap = 2)%N -> In a (blk_addrs q cap) -> exists j, (j < 3)%N /\ a = q + field_offset Fst j.
Proof.
  intros [-> | ->]; unfold blk_addrs; cbn [N.eqb Pos.eqb In]; intros H.
  - destruct H as [<-|[<-|[<-|[]]]]; [exists 0%N|exists 1%N|exists 2%N]; split; try lia; reflexivity.
  - destruct H as [<-|[<-|[]]]; [exists 0%N|exists 1%N]; split; try lia; reflexivity.
Qed.
Lemma lf_addrs_in m w : forall fuel to_load bp p a, lf_ok fuel m w to_load bp p -> In a (lf_addrs fuel w to_load bp p) ->
  exists q j, is_blk q /\ (j < 3)%N /\ a = q + field_offset Fst j.
Proof.
  induction fuel as [|f IH]; intros to_load bp p a OK Hin; cbn [lf_ok lf_addrs] in *; [contradiction|].
  destruct to_load as [|x r]; [contradiction|]. destruct OK as (OK0 & Hbq & _).
  apply in_app_iff in Hin as [Hin|Hin]; [eapply IH; eauto|].
  apply blk_addrs_in in Hin as (j & Hj & ->); [eauto|]. destruct bp; cbn; auto.
Qed.

Section LoadChain3.
Variable im : image.

(* what the walk needs of the object at p: every block of the chain is a block; if other references to p
   remain (then the fields are shared), the pointer slots that are shared are null or blocks; the counts have
   room for one more reference per variable *)
Definition walk_pre (s : xstate) (p : Z) (to_load : ctx) : Prop :=
  lf_ok (S (List.length to_load)) Release (hword s) to_load Last p /\
  (hword s p <> 0 -> lf_ok (S (List.length to_load)) Share (hword s) to_load Last p) /\
  (forall x, is_blk x -> min_int + 1 <= hword s x /\ hword s x + Z.of_nat (List.length to_load) <= max_int).

Theorem x86_load_walk_ok pos to_load existing lc cs lc' s sp p h F :
  x_load to_load existing lc = Ok (cs, lc') -> to_load <> [] ->
  code_at im pos cs -> labels_at im pos cs -> frame_ok s sp ->
  lget s sp (tpos (2 * N.of_nat (List.length existing))) = Some p -> is_blk p -> rget s HEAP = Some h ->
  walk_pre s p to_load ->
  let fuel := S (List.length to_load) in
  exists s', steps im pos s (pnth pos (List.length cs)) s' /\
    st_eqB (abs_heap F s')
      (if hword s p =? 0 then lf_abs fuel Release (hword s) to_load Last p (abs_heap F s)
       else lf_abs fuel Share (hword s) to_load Last p (Heap.dec p (abs_heap F s))) /\
    (forall i b, nth_error to_load i = Some b ->
       let A := lf_addrs fuel (hword s) to_load Last p in
       let a := nth (List.length A - List.length to_load + i) A 0 in
       lget s' sp (tpos (2 * N.of_nat (List.length existing + i) + 1)) = Some (hword s (a + 8)) /\
       (bchi b <> Ext -> lget s' sp (tpos (2 * N.of_nat (List.length existing + i))) = Some (hword s a))) /\
    (forall k, (k < 2 * N.of_nat (List.length existing))%N -> lget s' sp (tpos k) = lget s sp (tpos k)) /\
    out s' = out s /\ frame_ok s' sp /\
    nonblk_same s s' /\ (exists h', rget s' HEAP = Some h') /\ rget s' FREE = rget s FREE /\ stack_frame s s' sp.
Proof.
  intros Hx Hne HC HL FR P Hb Hh (OKr & OKs & Room) fuel.
  set (addr := fun (w : Z -> Z) (i : nat) =>
                 nth (List.length (lf_addrs fuel w to_load Last p) - List.length to_load + i) (lf_addrs fuel w to_load Last p) 0).
  apply (x86_load_gen im to_load existing p (fun m w a => lf_abs fuel m w to_load Last p a)
           (fun m w => lf_ok fuel m w to_load Last p) addr) with (lc := lc) (lc' := lc') (h := h); auto.
  - (* what load_fields does: the recursion over the blocks *)
    intros m lc0 cs0 fr lc0' pos0 s0 sp0 h0 F0 Hlf HC0 HL0 FR0 P0 Hh0 OK0 Room0.
    destruct (x86_load_fields_ok im fuel to_load existing Last m false lc0 cs0 fr lc0' pos0 s0 sp0 p h0 F0 Hlf
                ltac:(unfold fuel; lia) (fun _ => Hne) HC0 HL0 FR0 ltac:(discriminate) ltac:(rewrite lgetL_false; exact P0) Hh0 OK0 Room0)
      as (s1 & ST & EQ & _ & _ & V & Oth & NB & _ & HH & O & FR1 & SF).
    cbn [frL] in V, Oth.
    exists s1. split; [exact ST|]. split; [exact EQ|]. split; [|split; [|auto 10]].
    + intros i b Hi. destruct (V i b Hi) as [A B]. rewrite !lgetL_false in A, B. exact (conj A B).
    + intros l U Hr. rewrite <- (lgetL_false s1 sp0), Oth, lgetL_false; auto.
  - intros m w w' a a' Hw OKw E0. destruct (lf_ext m w w' Hw fuel to_load Last p a a' OKw E0) as (_ & X2 & X3 & X4).
    split; [intros i; unfold addr; now rewrite X2|auto].
  - intros w i OKw Hi. unfold addr. set (A := lf_addrs fuel w to_load Last p).
    assert (LA : (List.length to_load <= List.length A)%nat) by (apply lf_addrs_length; unfold fuel; lia).
    assert (Hin : In (nth (List.length A - List.length to_load + i) A 0) A) by (apply nth_In; lia).
    destruct (lf_addrs_in Share w fuel to_load Last p _ OKw Hin) as (q & j & Hq & Hj & ->).
    split; [|rewrite <- Z.add_assoc, <- fo_snd_fst]; now apply field_not_blk.
Qed.
End LoadChain3.

(* The walk in emission order is Heap.load_object. *)
From SCC Require Proof.HeapMore.

(* the pointer slots of the abstract state are the words w *)
Definition ps_w (w : Z -> Z) (a : Heap.st) : Prop := forall q, Heap.ps (Heap.m a q) = [w (q + 16); w (q + 32); w (q + 48)].
Lemma ps_w_abs F s : ps_w (hword s) (abs_heap F s). Proof. intros q. reflexivity. Qed.
Lemma ps_w_release w p a : ps_w w a -> ps_w w (Heap.release p a).
Proof. intros H q. rewrite HeapMore.release_ps. apply H. Qed.
Lemma ps_w_dec w p a : ps_w w a -> ps_w w (Heap.dec p a).
Proof. intros H q. rewrite HeapMore.dec_ps. apply H. Qed.
Lemma ps_w_share_list w l a : ps_w w a -> ps_w w (Heap.share_list l a).
Proof. intros H q. rewrite HeapMore.share_list_ps. apply H. Qed.
Lemma ps_w_link w a q : ps_w w a -> Heap.link_of (Heap.m a) q = w (q + 48).
Proof. intros H. unfold Heap.link_of. now rewrite H. Qed.

Fixpoint nthlink (w : Z -> Z) (j : nat) (p : Z) : Z := match j with O => p | S j' => w (nthlink w j' p + 48) end.
Lemma nthlink_shift w j p : nthlink w (S j) p = nthlink w j (w (p + 48)).
Proof. induction j as [|j IH]; [reflexivity|]. cbn [nthlink] in *. now rewrite IH. Qed.

(* number of continuation blocks for n variables *)
Definition nbo (n : nat) : nat := Nat.div (n + 1) 2.
Lemma nbo_step n : (1 <= n)%nat -> nbo n = S (nbo (n - 2)).
Proof.
  intros Hn. unfold nbo. destruct n as [|[|n]]; [lia|reflexivity|].
  replace (S (S n) - 2 + 1)%nat with (n + 1)%nat by lia. replace (S (S n) + 1)%nat with (n + 1 + 1 * 2)%nat by lia.
  rewrite Nat.div_add by lia. lia.
Qed.
Lemma nlinks_nbo n : Heap.nlinks n = nbo (n - 3).
Proof. unfold Heap.nlinks, nbo. destruct (Nat.leb_spec n 3); [|reflexivity]. replace (n - 3)%nat with 0%nat by lia. reflexivity. Qed.

Lemma lf_ptr_nthlink w p : forall fuel to_load, (List.length to_load < fuel)%nat ->
  lf_ptr fuel w to_load Other p = nthlink w (nbo (List.length to_load)) p.
Proof.
  induction fuel as [|f IH]; intros to_load Hf; [lia|]. cbn [lf_ptr].
  destruct to_load as [|x r]; [reflexivity|].
  set (tl := x :: r) in *. assert (Hn : (1 <= List.length tl)%nat) by (unfold tl; cbn; lia).
  change (3 - bp_n Other)%N with 2%N. rewrite IH by (rewrite firstn_length, rest_len_val; change (N.to_nat 2) with 2%nat; lia).
  rewrite firstn_length, rest_len_val. change (N.to_nat 2) with 2%nat.
  replace (Nat.min (List.length tl - 2) (List.length tl)) with (List.length tl - 2)%nat by lia.
  now rewrite (nbo_step (List.length tl) Hn).
Qed.

Fixpoint rel_upto (w : Z -> Z) (j : nat) (p : Z) (a : Heap.st) : Heap.st :=
  match j with O => a | S j' => Heap.release (nthlink w j' p) (rel_upto w j' p a) end.
Lemma rel_upto_shift w j : forall p a, rel_upto w (S j) p a = rel_upto w j (w (p + 48)) (Heap.release p a).
Proof.
  induction j as [|j IH]; intros p a; [reflexivity|].
  change (rel_upto w (S (S j)) p a) with (Heap.release (nthlink w (S j) p) (rel_upto w (S j) p a)).
  rewrite IH, nthlink_shift. reflexivity.
Qed.
Lemma blk_abs_release w next q cap a : blk_abs Release w next q cap a = Heap.release q a.
Proof. unfold blk_abs. apply lv_abs_release. Qed.

Lemma lf_abs_release_other w p a : forall fuel to_load, (List.length to_load < fuel)%nat ->
  lf_abs fuel Release w to_load Other p a = rel_upto w (nbo (List.length to_load)) p a.
Proof.
  induction fuel as [|f IH]; intros to_load Hf; [lia|]. cbn [lf_abs].
  destruct to_load as [|x r]; [reflexivity|].
  set (tl := x :: r) in *. assert (Hn : (1 <= List.length tl)%nat) by (unfold tl; cbn; lia).
  change (3 - bp_n Other)%N with 2%N. rewrite blk_abs_release.
  assert (Lr : List.length (firstn (rest_len (List.length tl) 2) tl) = (List.length tl - 2)%nat).
  { rewrite firstn_length, rest_len_val. change (N.to_nat 2) with 2%nat. lia. }
  rewrite IH, lf_ptr_nthlink by (rewrite Lr; lia). rewrite Lr, (nbo_step (List.length tl) Hn). reflexivity.
Qed.
Lemma load_object_release_upto w : forall k p a, ps_w w a ->
  Heap.load_object_release k p a = Heap.release (nthlink w k p) (rel_upto w k p a).
Proof.
  induction k as [|k IH]; intros p a Hps; [reflexivity|].
  cbn [Heap.load_object_release]. rewrite (ps_w_link w a p Hps).
  rewrite IH by (now apply ps_w_release). rewrite <- nthlink_shift, <- rel_upto_shift. reflexivity.
Qed.
Theorem lf_abs_release_load_object w to_load p a :
  to_load <> [] -> ps_w w a ->
  lf_abs (S (List.length to_load)) Release w to_load Last p a = Heap.load_object_release (Heap.nlinks (List.length to_load)) p a.
Proof.
  intros Hne Hps. cbn [lf_abs]. destruct to_load as [|x r]; [contradiction|].
  set (tl := x :: r) in *. assert (Hn : (1 <= List.length tl)%nat) by (unfold tl; cbn; lia).
  change (3 - bp_n Last)%N with 3%N. rewrite blk_abs_release.
  assert (Lr : List.length (firstn (rest_len (List.length tl) 3) tl) = (List.length tl - 3)%nat).
  { rewrite firstn_length, rest_len_val. change (N.to_nat 3) with 3%nat. lia. }
  rewrite lf_abs_release_other, lf_ptr_nthlink by (rewrite Lr; lia). rewrite Lr.
  rewrite (load_object_release_upto w _ _ _ Hps), nlinks_nbo. reflexivity.
Qed.

Lemma lv_abs_share_list2 w bs p a :
  (List.length bs <= 2)%nat ->
  (forall j, (j < 2 - N.of_nat (List.length bs))%N -> w (p + field_offset Fst j) = 0) ->
  (forall i b, nth_error bs i = Some b -> bchi b = Ext -> w (p + field_offset Fst (2 - N.of_nat (List.length bs) + N.of_nat i)) = 0) ->
  (forall j, (j < 2)%N -> w (p + field_offset Fst j) = 0 \/ is_blk (w (p + field_offset Fst j))) ->
  st_eqB (lv_abs Share w (rev bs) p 2 a) (Heap.share_list [w (p + 16); w (p + 32)] a).
Proof.
  intros Hlen Hz He Hk.
  assert (E : lv_abs Share w (rev bs) p 2 a = Heap.share (w (p + 16)) 1 (Heap.share (w (p + 32)) 1 a)).
  { destruct bs as [|b0 [|b1 [|]]]; cbn [List.length] in *; try lia; cbn [rev app lv_abs];
      change (2 - 1)%N with 1%N; change (1 - 1)%N with 0%N; rewrite ?fo_F0, ?fo_F1.
    - pose proof (Hz 0%N ltac:(cbn; lia)) as Z0. pose proof (Hz 1%N ltac:(cbn; lia)) as Z1.
      rewrite fo_F0 in Z0. rewrite fo_F1 in Z1. rewrite Z0, Z1. reflexivity.
    - pose proof (Hz 0%N ltac:(cbn; lia)) as Z0. rewrite fo_F0 in Z0. rewrite Z0.
      rewrite share_if; [reflexivity|]. intros Hx. exact (He 0%nat b0 eq_refl Hx).
    - rewrite (share_if b1); [|intros Hx; exact (He 1%nat b1 eq_refl Hx)].
      rewrite (share_if b0); [reflexivity|]. intros Hx. exact (He 0%nat b0 eq_refl Hx). }
  rewrite E. unfold Heap.share_list. cbn [fold_left]. apply share_comm.
Qed.

Fixpoint lf_share_ok (fuel : nat) (w : Z -> Z) (to_load : ctx) (bp : block_position) (p : Z) : Prop :=
  match fuel with
  | O => True
  | S f => match to_load with
           | [] => True
           | _ => let cap := (3 - bp_n bp)%N in
                  let rl := rest_len (List.length to_load) cap in
                  let q := lf_ptr f w (firstn rl to_load) Other p in
                  let next := skipn rl to_load in
                  lf_share_ok f w (firstn rl to_load) Other p /\ is_blk q /\
                  (forall j, (j < cap)%N -> w (q + field_offset Fst j) = 0 \/ is_blk (w (q + field_offset Fst j))) /\
                  (forall j, (j < cap - N.of_nat (List.length next))%N -> w (q + field_offset Fst j) = 0) /\
                  (forall i b, nth_error next i = Some b -> bchi b = Ext ->
                     w (q + field_offset Fst (cap - N.of_nat (List.length next) + N.of_nat i)) = 0)
           end
  end.
Lemma lf_share_ok_lf_ok w p : forall fuel to_load bp, lf_share_ok fuel w to_load bp p -> lf_ok fuel Share w to_load bp p.
Proof.
  induction fuel as [|f IH]; intros to_load bp H; cbn [lf_share_ok lf_ok] in *; auto.
  destruct to_load as [|x r]; auto. destruct H as (H0 & Hq & Hk & _). split; [now apply IH|]. split; [exact Hq|].
  apply lv_kids_all; [exact Hk|]. rewrite rev_length, skipn_length. apply next_len_le. destruct bp; cbn; auto.
Qed.

Fixpoint shr_upto (w : Z -> Z) (j : nat) (p : Z) (a : Heap.st) : Heap.st :=
  match j with
  | O => a
  | S j' => Heap.share_list [w (nthlink w j' p + 16); w (nthlink w j' p + 32)] (shr_upto w j' p a)
  end.
Lemma shr_upto_shift w j : forall p a,
  shr_upto w (S j) p a = shr_upto w j (w (p + 48)) (Heap.share_list [w (p + 16); w (p + 32)] a).
Proof.
  induction j as [|j IH]; intros p a; [reflexivity|].
  change (shr_upto w (S (S j)) p a) with (Heap.share_list [w (nthlink w (S j) p + 16); w (nthlink w (S j) p + 32)] (shr_upto w (S j) p a)).
  rewrite IH, nthlink_shift. reflexivity.
Qed.
Lemma share_walk_upto w : forall k p a, ps_w w a ->
  Heap.share_walk k p a =
  Heap.share_list [w (nthlink w k p + 16); w (nthlink w k p + 32); w (nthlink w k p + 48)] (shr_upto w k p a).
Proof.
  induction k as [|k IH]; intros p a Hps.
  - cbn [Heap.share_walk nthlink shr_upto]. now rewrite Hps.
  - cbn [Heap.share_walk]. rewrite (ps_w_link w a p Hps). unfold Heap.fields_of. rewrite Hps. cbn [firstn skipn app].
    rewrite IH by (now apply ps_w_share_list). rewrite <- nthlink_shift, <- shr_upto_shift. reflexivity.
Qed.
Lemma share_list_st_eqB l : forall a b, st_eqB a b -> Forall (fun c => c = 0 \/ is_blk c) l -> st_eqB (Heap.share_list l a) (Heap.share_list l b).
Proof.
  unfold Heap.share_list. induction l as [|c l IH]; intros a b E Hl; cbn [fold_left]; auto.
  inversion Hl; subst. apply IH; auto. now apply share_st_eqB.
Qed.

Lemma lf_abs_share_other w p a : forall fuel to_load, (List.length to_load < fuel)%nat ->
  lf_share_ok fuel w to_load Other p ->
  st_eqB (lf_abs fuel Share w to_load Other p a) (shr_upto w (nbo (List.length to_load)) p a).
Proof.
  induction fuel as [|f IH]; intros to_load Hf OK; [lia|]. cbn [lf_abs lf_share_ok] in *.
  destruct to_load as [|x r]; [apply st_eqB_refl|].
  set (tl := x :: r) in *. assert (Hn : (1 <= List.length tl)%nat) by (unfold tl; cbn; lia).
  change (3 - bp_n Other)%N with 2%N in *.
  set (rl := rest_len (List.length tl) 2) in *.
  assert (Lr : List.length (firstn rl tl) = (List.length tl - 2)%nat).
  { rewrite firstn_length. unfold rl. rewrite rest_len_val. change (N.to_nat 2) with 2%nat. lia. }
  assert (Ln : (List.length (skipn rl tl) <= 2)%nat).
  { rewrite skipn_length. unfold rl. rewrite rest_len_val. change (N.to_nat 2) with 2%nat. lia. }
  destruct OK as (OK0 & Hq & Hk & Hz & He).
  rewrite lf_ptr_nthlink in * by (rewrite Lr; lia). rewrite Lr in *.
  rewrite (nbo_step (List.length tl) Hn). cbn [shr_upto].
  set (q := nthlink w (nbo (List.length tl - 2)) p) in *.
  unfold blk_abs.
  eapply st_eqB_trans; [apply (lv_abs_congr Share (rev (skipn rl tl)) w w q 2 _ (shr_upto w (nbo (List.length tl - 2)) p a))|].
  - pose proof (IH (firstn rl tl) ltac:(rewrite Lr; lia) OK0) as IH0. rewrite Lr in IH0. exact IH0.
  - reflexivity.
  - rewrite rev_length. lia.
  - apply lv_kids_all; [exact Hk|rewrite rev_length; lia].
  - apply lv_abs_share_list2; auto.
Qed.

Theorem lf_abs_share_load_object w to_load p a :
  to_load <> [] -> ps_w w a -> lf_share_ok (S (List.length to_load)) w to_load Last p ->
  st_eqB (lf_abs (S (List.length to_load)) Share w to_load Last p a) (Heap.share_walk (Heap.nlinks (List.length to_load)) p a).
Proof.
  intros Hne Hps OK. cbn [lf_abs lf_share_ok] in *. destruct to_load as [|x r]; [contradiction|].
  set (tl := x :: r) in *. assert (Hn : (1 <= List.length tl)%nat) by (unfold tl; cbn; lia).
  change (3 - bp_n Last)%N with 3%N in *.
  set (rl := rest_len (List.length tl) 3) in *.
  assert (Lr : List.length (firstn rl tl) = (List.length tl - 3)%nat).
  { rewrite firstn_length. unfold rl. rewrite rest_len_val. change (N.to_nat 3) with 3%nat. lia. }
  assert (Ln : (List.length (skipn rl tl) <= 3)%nat).
  { rewrite skipn_length. unfold rl. rewrite rest_len_val. change (N.to_nat 3) with 3%nat. lia. }
  destruct OK as (OK0 & Hq & Hk & Hz & He).
  rewrite lf_ptr_nthlink in * by (rewrite Lr; lia). rewrite Lr in *.
  rewrite (share_walk_upto w _ _ _ Hps), nlinks_nbo.
  set (q := nthlink w (nbo (List.length tl - 3)) p) in *.
  unfold blk_abs.
  eapply st_eqB_trans; [apply (lv_abs_congr Share (rev (skipn rl tl)) w w q 3 _ (shr_upto w (nbo (List.length tl - 3)) p a))|].
  - pose proof (lf_abs_share_other w p a (List.length tl) (firstn rl tl) ltac:(rewrite Lr; lia) OK0) as IH0. rewrite Lr in IH0. exact IH0.
  - reflexivity.
  - rewrite rev_length. lia.
  - apply lv_kids_all; [exact Hk|rewrite rev_length; lia].
  - apply lv_abs_share_list; auto.
Qed.

Theorem x86_load_frame im pos to_load existing lc cs lc' s sp p h F :
  x_load to_load existing lc = Ok (cs, lc') -> to_load <> [] ->
  code_at im pos cs -> labels_at im pos cs -> frame_ok s sp ->
  lget s sp (tpos (2 * N.of_nat (List.length existing))) = Some p -> is_blk p -> rget s HEAP = Some h ->
  lf_share_ok (S (List.length to_load)) (hword s) to_load Last p ->
  (forall x, is_blk x -> min_int + 1 <= hword s x /\ hword s x + Z.of_nat (List.length to_load) <= max_int) ->
  exists s', steps im pos s (pnth pos (List.length cs)) s' /\
    st_eqB (abs_heap F s') (Heap.load_object (Heap.nlinks (List.length to_load)) p (abs_heap F s)) /\
    (forall i b, nth_error to_load i = Some b ->
       let A := lf_addrs (S (List.length to_load)) (hword s) to_load Last p in
       let a := nth (List.length A - List.length to_load + i) A 0 in
       lget s' sp (tpos (2 * N.of_nat (List.length existing + i) + 1)) = Some (hword s (a + 8)) /\
       (bchi b <> Ext -> lget s' sp (tpos (2 * N.of_nat (List.length existing + i))) = Some (hword s a))) /\
    (forall k, (k < 2 * N.of_nat (List.length existing))%N -> lget s' sp (tpos k) = lget s sp (tpos k)) /\
    out s' = out s /\ frame_ok s' sp /\
    nonblk_same s s' /\ (exists h', rget s' HEAP = Some h') /\ rget s' FREE = rget s FREE /\ stack_frame s s' sp.
Proof.
  intros Hx Hne HC HL FR P Hb Hh OK Room.
  destruct (x86_load_walk_ok im pos to_load existing lc cs lc' s sp p h F Hx Hne HC HL FR P Hb Hh)
    as (s' & ST & EQ & Rest).
  { split; [eapply lf_ok_release; now apply lf_share_ok_lf_ok|]. split; [intros _; now apply lf_share_ok_lf_ok|exact Room]. }
  exists s'. split; [exact ST|]. split; [|exact Rest].
  eapply st_eqB_trans; [exact EQ|]. unfold Heap.load_object.
  change (Heap.hdr (Heap.m (abs_heap F s) p)) with (hword s p).
  destruct (hword s p =? 0).
  - rewrite lf_abs_release_load_object; [apply st_eqB_refl|exact Hne|apply ps_w_abs].
  - unfold Heap.load_object_share. apply lf_abs_share_load_object; [exact Hne|apply ps_w_dec, ps_w_abs|exact OK].
Qed.

Theorem x86_load_ok im pos to_load existing lc cs lc' s sp p h F :
  x_load to_load existing lc = Ok (cs, lc') -> to_load <> [] ->
  code_at im pos cs -> labels_at im pos cs -> frame_ok s sp ->
  lget s sp (tpos (2 * N.of_nat (List.length existing))) = Some p -> is_blk p -> rget s HEAP = Some h ->
  lf_share_ok (S (List.length to_load)) (hword s) to_load Last p ->
  (forall x, is_blk x -> min_int + 1 <= hword s x /\ hword s x + Z.of_nat (List.length to_load) <= max_int) ->
  exists s', steps im pos s (pnth pos (List.length cs)) s' /\
    st_eqB (abs_heap F s') (Heap.load_object (Heap.nlinks (List.length to_load)) p (abs_heap F s)) /\
    (forall i b, nth_error to_load i = Some b ->
       let A := lf_addrs (S (List.length to_load)) (hword s) to_load Last p in
       let a := nth (List.length A - List.length to_load + i) A 0 in
       lget s' sp (tpos (2 * N.of_nat (List.length existing + i) + 1)) = Some (hword s (a + 8)) /\
       (bchi b <> Ext -> lget s' sp (tpos (2 * N.of_nat (List.length existing + i))) = Some (hword s a))) /\
    (forall k, (k < 2 * N.of_nat (List.length existing))%N -> lget s' sp (tpos k) = lget s sp (tpos k)) /\
    out s' = out s /\ frame_ok s' sp.
Proof.
  intros Hx Hne HC HL FR P Hb Hh OK Room.
  destruct (x86_load_frame im pos to_load existing lc cs lc' s sp p h F Hx Hne HC HL FR P Hb Hh OK Room)
    as (s' & ST & EQ & V & O & Out & FR' & _).
  exists s'. auto 7.
Qed.

Print Assumptions x86_load_walk_ok.
Print Assumptions x86_load_ok.

(* the hypotheses are satisfiable: a shared two-block object with five fields, its pointer and
   all loaded variables in spill slots (six variables before it), TEMPORARY_TEMP evacuated and restored *)
Definition ex6_existing : ctx := map (fun i => mkb ("v"%string, i) Ext I64) [0; 1; 2; 3; 4; 5]%N.
Definition ex6_state : xstate :=
  let r := rset (rset (rset (rset (init_state []) 0 (Some ex_sp)) HEAP (Some (HEAP_BASE + 192))) FREE (Some (HEAP_BASE + 256))) 4 (Some 777) in
  let st := sset r ex_sp 1 (Some HEAP_BASE) in
  fold_left (fun s (az : Z * Z) => hset s (HEAP_BASE + fst az) (snd az))
            [(0, 1); (24, 11); (32, HEAP_BASE + 128); (40, 22); (48, HEAP_BASE + 64); (64 + 24, 33); (64 + 40, 44); (64 + 56, 55)] st.
Definition ex6_code : list xcode := match x_load ex5_store ex6_existing 0 with Ok (cs, _) => cs | Err _ => [] end.

Lemma Zeqb_add_l a x y : (a + x =? a + y) = (x =? y).
Proof. destruct (Z.eqb_spec x y) as [->|H]; [apply Z.eqb_refl|apply Z.eqb_neq; lia]. Qed.

Example x86_load_example :
  exists lc', x_load ex5_store ex6_existing 0 = Ok (ex6_code, lc') /\
  exists s', steps (mk_image ex6_code) 1 ex6_state (pnth 1 (List.length ex6_code)) s' /\
     st_eqB (abs_heap (HEAP_BASE + 256) s') (Heap.load_object 1 HEAP_BASE (abs_heap (HEAP_BASE + 256) ex6_state)) /\
     sget s' ex_sp 2 = Some 11 /\ sget s' ex_sp 3 = Some (HEAP_BASE + 128) /\ sget s' ex_sp 10 = Some 55 /\
     rget s' 4%N = Some 777.
Proof.
  assert (Hx : exists lc', x_load ex5_store ex6_existing 0 = Ok (ex6_code, lc')) by (eexists; vm_compute; reflexivity).
  destruct Hx as [lc' Hx]. exists lc'. split; [exact Hx|].
  destruct (mk_image_code_labels ex6_code) as [HC HL]; [apply nodupb_sound; vm_compute; reflexivity|].
  assert (Bk : forall k, 0 <= k <= 4 -> is_blk (HEAP_BASE + 64 * k)).
  { intros k Hk. apply is_blk_nth; unfold HEAP_SIZE; lia. }
  assert (W : forall o, hword ex6_state (HEAP_BASE + o) =
     if o =? 120 then 55 else if o =? 104 then 44 else if o =? 88 then 33 else if o =? 48 then HEAP_BASE + 64 else
     if o =? 40 then 22 else if o =? 32 then HEAP_BASE + 128 else if o =? 24 then 11 else if o =? 0 then 1 else 0).
  { intros o. unfold ex6_state. cbn [fold_left fst snd]. rewrite !hword_hset by (vm_compute; reflexivity).
    rewrite hword_sset, !hword_rset. replace (hword (init_state []) (HEAP_BASE + o)) with 0 by (unfold hword, init_state; cbn [heap]; now rewrite PM.gempty).
    rewrite !Zeqb_add_l. reflexivity. }
  destruct (x86_load_ok (mk_image ex6_code) 1 ex5_store ex6_existing 0 ex6_code lc' ex6_state ex_sp HEAP_BASE (HEAP_BASE + 192) (HEAP_BASE + 256) Hx ltac:(discriminate) HC HL)
    as (s' & ST & EQ & V & O & _).
  - split; [vm_compute; reflexivity|exact sp_ok_below_top].
  - vm_compute; reflexivity.
  - exact (Bk 0 ltac:(lia)).
  - vm_compute; reflexivity.
  - unfold ex5_store. cbn [lf_share_ok List.length]. change (3 - bp_n Last)%N with 3%N. change (3 - bp_n Other)%N with 2%N.
    change (rest_len 5 3) with 2%nat. cbn [firstn skipn List.length]. change (rest_len 2 2) with 0%nat. cbn [firstn skipn List.length lf_ptr].
    change (rest_len 2 (3 - bp_n Other)) with 0%nat. cbn [firstn lf_ptr].
    replace (hword ex6_state (HEAP_BASE + 48)) with (HEAP_BASE + 64 * 1) by (rewrite W; reflexivity).
    split; [split; [exact I|]|].
    + split; [exact (Bk 0 ltac:(lia))|]. split; [|split].
      * intros j Hj. assert (Hc : (j = 0 \/ j = 1)%N) by lia. destruct Hc as [-> | ->]; rewrite ?fo_F0, ?fo_F1, W; cbn; auto.
        right. exact (Bk 2 ltac:(lia)).
      * intros j Hj. cbn in Hj. lia.
      * intros i b Hi Hb. destruct i as [|[|i]]; cbn in Hi; try (destruct i; discriminate); inversion Hi; subst b; cbn in Hb; try discriminate.
        change (hword ex6_state (HEAP_BASE + 16) = 0). rewrite W. reflexivity.
    + split; [exact (Bk 1 ltac:(lia))|]. split; [|split].
      * intros j Hj. assert (Hc : (j = 0 \/ j = 1 \/ j = 2)%N) by lia.
        destruct Hc as [->|[->| ->]]; rewrite ?fo_F0, ?fo_F1, ?fo_F2, <- Z.add_assoc, W; cbn; auto.
      * intros j Hj. cbn in Hj. lia.
      * intros i b Hi Hb. destruct i as [|[|[|i]]]; cbn in Hi; try (destruct i; discriminate); inversion Hi; subst b; cbn in Hb; try discriminate;
          first [change (hword ex6_state (HEAP_BASE + (64 * 1 + 16)) = 0)|change (hword ex6_state (HEAP_BASE + (64 * 1 + 48)) = 0)]; rewrite W; reflexivity.
  - intros x Hx'. destruct Hx' as (k & Hk & -> & Hhi). replace (HEAP_BASE + 64 * k) with (HEAP_BASE + (64 * k)) by lia. rewrite W.
    cbn [List.length ex5_store]. unfold min_int, max_int, two63, HEAP_BASE.
    repeat match goal with |- context [?a =? ?b] => destruct (Z.eqb_spec a b) end; lia.
  - exists s'. split; [exact ST|]. split; [exact EQ|].
    destruct (V 0%nat _ eq_refl) as [V0 _]. destruct (V 1%nat _ eq_refl) as [_ V1]. destruct (V 4%nat _ eq_refl) as [V4 _].
    specialize (V1 ltac:(discriminate)). specialize (O 0%N ltac:(cbn; lia)).
    split; [|split; [|split]].
    + etransitivity; [exact V0|]. vm_compute; reflexivity.
    + etransitivity; [exact V1|]. vm_compute; reflexivity.
    + etransitivity; [exact V4|]. vm_compute; reflexivity.
    + etransitivity; [exact O|]. vm_compute. reflexivity.
Qed.
Print Assumptions x86_load_example.
