(* C13 on AArch64, the SP discipline of WHOLE compiled programs (model level): in the code
   Backend.compile a64_backend emits for any program, SP is written only inside the save/restore
   bracket of a print sequence; walking the code linearly with the displacement d of SP from its
   body value, d = 0 (mod 16) at every BL and every SP-relative load/store, and d = 0 at every
   label, branch and RET - so every control transfer (to a label, into a jump table of B
   instructions, through BR to an ADR'ed label) leaves and arrives at displacement 0 and the linear
   walk accounts for every execution path.  With C13_a64_body_alignment (SP = 0 mod 16 in the body)
   this is "SP is 16-byte aligned at every stack access and at every call of the print runtime".
   Instance of Proof/CodegenForall.v. *)
From Coq Require Import List ZArith NArith String Bool Lia.
From SCC Require Import Base.Sexp Lang.AxSyn Model.ParMoves Model.Backend Model.A64 Generated.Constants
     Proof.A64Wf Proof.CodegenForall.
From SCC Require Proof.A64PM.
Import ListNotations.
Open Scope Z_scope.

Definition is_control (c : acode) : bool :=
  match c with
  | B _ | BR _ | BEQ _ | BNE _ | BLT _ | BLE _ | BGT _ | BGE _ | RET | LAB _ | TEXT | GLOBAL _ => true
  | _ => false
  end.
Fixpoint sp_flow_safe (d : Z) (cs : list acode) : Prop :=
  match cs with
  | [] => True
  | c :: r => (sp_sensitive c = true -> d mod 16 = 0) /\ (is_control c = true -> d = 0) /\ sp_tracked c = true /\
              sp_flow_safe (d + sp_delta1 c) r
  end.
Definition sp_disciplined (cs : list acode) : Prop := sp_flow_safe 0 cs /\ sp_delta cs = 0.

Lemma sp_flow_safe_app d a b : sp_flow_safe d (a ++ b) <-> sp_flow_safe d a /\ sp_flow_safe (d + sp_delta a) b.
Proof.
  revert d; induction a as [|c a IH]; intros d.
  - cbn [app sp_flow_safe]. change (sp_delta []) with 0. rewrite Z.add_0_r. split; [intros H; split; [exact I|exact H]|intros [_ H]; exact H].
  - change ((c :: a) ++ b)%list with (c :: (a ++ b))%list. cbn [sp_flow_safe]. rewrite sp_delta_cons, Z.add_assoc.
    split.
    + intros (S & C & T & AB). apply IH in AB as [A B]. repeat split; assumption.
    + intros ((S & C & T & A) & B). repeat split; try assumption. apply IH. split; assumption.
Qed.
Lemma disciplined_nil : sp_disciplined [].
Proof. split; [exact I|reflexivity]. Qed.
Lemma disciplined_app a b : sp_disciplined a -> sp_disciplined b -> sp_disciplined (a ++ b).
Proof.
  intros [A1 A2] [B1 B2]. split; [apply sp_flow_safe_app; rewrite A2; auto|rewrite sp_delta_app, A2, B2; reflexivity].
Qed.
Lemma neutral_disciplined l : Forall sp_neutral l -> sp_disciplined l.
Proof.
  intros F. split; [|apply sp_delta_neutral; exact F].
  induction F as [|c l [Ht Hc] _ IH]; cbn [sp_flow_safe]; [exact I|]. rewrite Hc. auto.
Qed.
Lemma safe_flow d cs : sp_safe d cs -> Forall (fun c => is_control c = false) cs -> sp_flow_safe d cs.
Proof.
  revert d; induction cs as [|c cs IH]; intros d S F; cbn [sp_safe sp_flow_safe] in *; [exact I|].
  inversion F as [|? ? Fc F']; subst. destruct S as (A & T & S). repeat split; auto. rewrite Fc; discriminate.
Qed.

Definition Tt (t : atemp) : Prop := match t with AR (X _) => True | AR _ => False | AS _ => True end.
Lemma tfp_Tt p t : temporary_from_position p = Ok t -> Tt t.
Proof.
  unfold temporary_from_position. destruct (N.ltb _ _); [intros E; injection E as <-; exact I|].
  destruct (N.ltb _ _); [intros E; injection E as <-; exact I|discriminate].
Qed.

Notation NL := (Forall sp_neutral).
Lemma NL_app a b : NL a -> NL b -> NL (a ++ b). Proof. intros; apply Forall_app; auto. Qed.
(* a literal instruction list is neutral instruction by instruction; its sublists by hypothesis *)
Ltac nt :=
  repeat first [ assumption | apply Forall_nil | apply NL_app
               | apply Forall_cons; [split; reflexivity|] ].

Lemma imm_pieces_NL n v inv ign fd is : NL (imm_pieces (X n) v inv ign fd is).
Proof.
  revert fd; induction is as [|i is IH]; intros fd; cbn [imm_pieces]; [constructor|].
  destruct (Z.eqb _ ign); [apply IH|]. destruct fd; [|destruct inv]; (constructor; [split; reflexivity|apply IH]).
Qed.
Lemma imm_code_NL n v : NL (imm_code (X n) v).
Proof. unfold imm_code. destruct (Z.eqb v 0); [nt|]. destruct (Z.eqb v (-1)); [nt|]. apply imm_pieces_NL. Qed.
Lemma load_immediate_NL t v : Tt t -> NL (a_load_immediate t v).
Proof.
  destruct t as [[n| |]|p]; cbn [Tt a_load_immediate]; try tauto; intros _.
  - apply imm_code_NL.
  - apply NL_app; [change TEMP with (X 2); apply imm_code_NL|nt].
Qed.
Lemma op_NL f t s1 s2 :
  (forall n a b, NL (f (X n) a b)) -> Tt t -> NL (a_op f t s1 s2).
Proof.
  intros Hf. change TEMP with (X 2) in *. change TEMP2 with (X 3) in *.
  destruct t as [[tn| |]|tp]; cbn [Tt]; try tauto; intros _;
    destruct s1 as [r1|p1], s2 as [r2|p2]; cbn [a_op]; unfold scratch_for; change TEMP with (X 2); change TEMP2 with (X 3);
    repeat match goal with |- context [areg_eqb ?a ?b] => destruct (areg_eqb a b) end;
    repeat (apply NL_app); try apply Hf; nt.
Qed.
Lemma rem_NL n a b : NL (r_rem (X n) a b).
Proof.
  unfold r_rem. change TEMP with (X 2). change TEMP2 with (X 3). change TEMPORARY_TEMP with (X 10).
  repeat match goal with |- context [areg_eqb ?x ?y] => destruct (areg_eqb x y) end; nt.
Qed.
Lemma arith_NL o t s1 s2 : Tt t -> NL (a_arith o t s1 s2).
Proof.
  intros T. destruct o; cbn [a_arith]; apply op_NL; auto; intros; try apply rem_NL; unfold r_add, r_sub, r_mul, r_div; nt.
Qed.
Lemma bcc_NL s l : sp_neutral (bcc s l).
Proof. destruct s; split; reflexivity. Qed.

Lemma erase_valid_NL r lc : NL (fst (erase_valid_object r lc)).
Proof. unfold erase_valid_object, if_zero_then_else. change TEMP2 with (X 3). change FREE with (X 1). cbn [fst]. nt. Qed.
Lemma erase_block_NL t lc : NL (fst (a_erase_block t lc)).
Proof.
  unfold a_erase_block, skip_if_zero. change TEMP with (X 2). change TEMP2 with (X 3).
  destruct t as [r|p].
  - pose proof (erase_valid_NL r lc) as E. destruct (erase_valid_object r lc) as [c lc1]. cbn [fst] in *. nt.
  - pose proof (erase_valid_NL (X 2) lc) as E. destruct (erase_valid_object (X 2) lc) as [c lc1]. cbn [fst] in *. nt.
Qed.
Lemma share_code_NL r n : NL (share_code r n).
Proof. unfold share_code. change TEMP2 with (X 3). nt. Qed.
Lemma share_block_NL t n lc : NL (fst (a_share_block_n t n lc)).
Proof.
  unfold a_share_block_n, skip_if_zero. change TEMP with (X 2).
  destruct t as [r|p]; cbn [fst]; nt; apply share_code_NL.
Qed.
Lemma erase_fields_NL r lc : NL (fst (erase_fields r lc)).
Proof.
  unfold erase_fields. assert (H : NL (fst (@nil acode, lc))) by constructor. revert H. generalize (@nil acode, lc).
  induction (nseq 0 FIELDS_PER_BLOCK) as [|o l IH]; intros [c lc0] H; cbn [fold_left]; [exact H|].
  pose proof (erase_block_NL (AR TEMP) lc0) as E. destruct (a_erase_block (AR TEMP) lc0) as [c1 lc1]. cbn [fst] in *.
  apply IH. cbn [fst]. change TEMP with (X 2). nt.
Qed.
Lemma acquire_block_NL t lc : Tt t -> NL (fst (acquire_block t lc)).
Proof.
  intros T. unfold acquire_block. change TEMP with (X 2). change HEAP with (X 0). change FREE with (X 1).
  pose proof (erase_fields_NL (X 0) lc) as EF. change HEAP with (X 0) in EF. destruct (erase_fields (X 0) lc) as [ef lc1]. cbn [fst] in EF.
  unfold if_zero_then_else. cbn [fst]. nt.
  all: destruct t as [[n| |]|p]; cbn [Tt] in T; try tauto; nt.
Qed.
Lemma store_zeros_NL k r : NL (store_zeros k r).
Proof. unfold store_zeros. induction (nseq 0 k) as [|o l IH]; cbn [flat_map]; [constructor|]. unfold store_zero at 1. nt. Qed.

Lemma fresh_Tt n c t : a_fresh n c = Ok t -> Tt t.
Proof. apply tfp_Tt. Qed.

(* a generator that may fail emits neutral code whenever it succeeds; proved through its binds, one at a time *)
Definition NLr {A} (code : A -> list acode) (r : res A) : Prop := forall x, r = Ok x -> NL (code x).
Lemma NLr_bind {A B} (code : B -> list acode) (e : res A) (k : A -> res B) :
  (forall a, e = Ok a -> NLr code (k a)) -> NLr code (rbind e k).
Proof. intros H x. destruct e as [a|]; cbn [rbind]; [apply (H a eq_refl)|discriminate]. Qed.
Lemma NLr_ok {A} (code : A -> list acode) x : NL (code x) -> NLr code (Ok x).
Proof. intros H y E. injection E as <-. exact H. Qed.

Lemma store_field_NL n c block off : NLr (fun cs => cs) (store_field n c block off).
Proof.
  unfold store_field. apply NLr_bind. intros t _. apply NLr_ok. change TEMP with (X 2). destruct t; nt.
Qed.
Lemma load_field_NL n c block off : NLr (fun cs => cs) (load_field n c block off).
Proof.
  unfold load_field. apply NLr_bind. intros t F. apply fresh_Tt in F. apply NLr_ok.
  change TEMP with (X 2). destruct t as [[m| |]|p]; cbn [Tt] in F; try contradiction; nt.
Qed.
Lemma store_value_NL b c block off : NLr (fun cs => cs) (store_value b c block off).
Proof.
  unfold store_value. apply NLr_bind. intros c1 E1. apply store_field_NL in E1.
  destruct (bchi b); [| |apply NLr_ok; unfold store_zero; nt].
  all: apply NLr_bind; intros c2 E2; apply store_field_NL in E2; apply NLr_ok; nt.
Qed.
Lemma load_value_NL b c block off m lc : NLr fst (load_value b c block off m lc).
Proof.
  unfold load_value. apply NLr_bind. intros c1 E1. apply load_field_NL in E1.
  assert (G : NLr fst (dor c2 <- load_field Fst c block off;
                   dor t <- a_fresh Fst c;
                   let r := match t with AR r => r | AS _ => TEMP end in
                   match m with
                   | Share => let '(c3, lc1) := a_share_block_n (AR r) 1 lc in Ok (c1 ++ c2 ++ c3, lc1)
                   | Release => Ok (c1 ++ c2, lc)
                   end)).
  { apply NLr_bind. intros c2 E2. apply load_field_NL in E2. apply NLr_bind. intros t _. cbv zeta.
    destruct m; [apply NLr_ok; cbn [fst]; nt|].
    match goal with |- context [a_share_block_n ?a 1 lc] => pose proof (share_block_NL a 1 lc) as S; destruct (a_share_block_n a 1 lc) as [c3 lc1] end.
    apply NLr_ok. cbn [fst] in *. nt. }
  destruct (bchi b); try exact G. apply NLr_ok. exact E1.
Qed.
Lemma store_values_NL block : forall l remaining ff, NLr (fun cs => cs) (store_values l remaining block ff).
Proof.
  induction l as [|b l IH]; intros remaining ff; cbn [store_values]; [apply NLr_ok; apply store_zeros_NL|].
  apply NLr_bind. intros c1 E1. apply store_value_NL in E1.
  apply NLr_bind. intros c2 E2. apply IH in E2. apply NLr_ok. nt.
Qed.
Lemma load_values_NL block m : forall l existing ff lc, NLr fst (load_values l existing block ff m lc).
Proof.
  induction l as [|b l IH]; intros existing ff lc; cbn [load_values]; [apply NLr_ok; constructor|].
  apply NLr_bind. intros [c1 lc1] E1. apply load_value_NL in E1.
  apply NLr_bind. intros [c2 lc2] E2. apply IH in E2. apply NLr_ok. cbn [fst] in *. nt.
Qed.
Lemma store_fields_NL : forall fuel to_store remaining bp lc, NLr fst (store_fields fuel to_store remaining bp lc).
Proof.
  induction fuel as [|fuel IH]; intros to_store remaining bp lc; cbn [store_fields]; [intros x E; discriminate|].
  destruct to_store as [|b0 rest0].
  - destruct bp; [|apply NLr_ok; constructor].
    apply NLr_bind. intros t F. apply fresh_Tt in F. apply NLr_ok. apply load_immediate_NL. exact F.
  - set (ts := b0 :: rest0). clearbody ts.
    apply NLr_bind. intros c0 E0.
    assert (N0 : NL c0) by (destruct bp; [injection E0 as <-; constructor|exact (store_field_NL _ _ _ _ _ E0)]).
    apply NLr_bind. intros c1 E1. apply store_values_NL in E1.
    apply NLr_bind. intros t F. apply fresh_Tt in F.
    pose proof (acquire_block_NL t lc F) as A. destruct (acquire_block t lc) as [c2 lc2].
    apply NLr_bind. intros [c3 lc3] E3. apply IH in E3. apply NLr_ok. cbn [fst] in *. nt.
Qed.
Lemma load_fields_NL : forall fuel to_load existing bp m freed lc,
  NLr (fun r => fst (fst r)) (load_fields fuel to_load existing bp m freed lc).
Proof.
  induction fuel as [|fuel IH]; intros to_load existing bp m freed lc; cbn [load_fields]; [intros x E; discriminate|].
  destruct to_load as [|b0 rest0]; [apply NLr_ok; constructor|].
  set (tl := b0 :: rest0). clearbody tl.
  apply NLr_bind. intros [[c0 fr0] lc0] E0. apply IH in E0. cbn [fst] in E0.
  apply NLr_bind. intros mb F. apply fresh_Tt in F. change TEMPORARY_TEMP with (X 10).
  assert (N2 : forall r c2, match bp with
                            | Other => load_field Fst (existing ++ tl) r (FIELDS_PER_BLOCK - 1)
                            | Last => Ok []
                            end = Ok c2 -> NL c2).
  { intros r c2 E2. destruct bp; [injection E2 as <-; constructor|exact (load_field_NL _ _ _ _ _ E2)]. }
  assert (N1 : forall r, NL (match m with Release => release_block (X r) | Share => [] end)).
  { intros r. destruct m; [unfold release_block; change HEAP with (X 0); nt|constructor]. }
  destruct mb as [[mr| |]|mp]; cbn [Tt] in F; try contradiction.
  - apply NLr_bind. intros c2 E2. apply N2 in E2.
    apply NLr_bind. intros [c3 lc3] E3. apply load_values_NL in E3.
    apply NLr_ok. cbn [fst] in *. specialize (N1 mr). nt.
  - apply NLr_bind. intros c2 E2. apply N2 in E2.
    apply NLr_bind. intros [c3 lc3] E3. apply load_values_NL in E3.
    apply NLr_ok. cbn [fst] in *. specialize (N1 10%N).
    assert (Ne : NL (if fr0 then [] else [STR (X 10) SP (stack_offset SPILL_TEMP)])) by (destruct fr0; nt).
    assert (N4 : NL (match bp with Last => [LDR (X 10) SP (stack_offset SPILL_TEMP)] | Other => [] end)) by (destruct bp; nt).
    nt.
Qed.
Lemma load_register_NL block to_load existing lc : NLr fst (load_register block to_load existing lc).
Proof.
  unfold load_register. change TEMP2 with (X 3).
  apply NLr_bind. intros [[tb f1] lc1] E1. apply load_fields_NL in E1.
  apply NLr_bind. intros [[eb f2] lc2] E2. apply load_fields_NL in E2.
  apply NLr_ok. unfold if_zero_then_else. cbn [fst] in *. nt.
Qed.
Lemma a_load_NL a r lc : NLr fst (a_load a r lc).
Proof.
  unfold a_load. destruct a as [|b0 a0]; [apply NLr_ok; constructor|]. change TEMP with (X 2). change TEMP2 with (X 3).
  apply NLr_bind. intros [rr|p] _; apply NLr_bind; intros [c1 l1] E1; apply load_register_NL in E1; apply NLr_ok; cbn [fst] in *; nt.
Qed.

Lemma print_no_control newline s context : Forall (fun c => is_control c = false) (a_print newline s context).
Proof.
  unfold a_print. destruct (caller_save_registers_info context) as [fb regs].
  rewrite save_shape, restore_shape.
  assert (M : forall (f : N * N -> acode) l, (forall p, is_control (f p) = false) -> Forall (fun c => is_control c = false) (map f l)).
  { intros f l H. induction l; cbn; constructor; auto. }
  apply Forall_app; split; [destruct s as [r|p]; [constructor|]; cbn [move_to_register]; repeat constructor|].
  apply Forall_app; split.
  { apply Forall_app; split; [apply M; intros [a b]; reflexivity|].
    destruct (Nat.eqb _ 0); [constructor|]. apply Forall_app; split; [repeat constructor|]. apply M. intros [a b]; reflexivity. }
  apply Forall_app; split; [destruct s; repeat constructor|].
  apply Forall_app; split; [destruct newline; repeat constructor|].
  apply Forall_app; split; [apply M; intros [a b]; reflexivity|].
  destruct (Nat.eqb _ 0); [constructor|]. apply Forall_app; split; [|repeat constructor]. apply M. intros [a b]; reflexivity.
Qed.
Lemma print_disciplined newline s context : sp_disciplined (a_print newline s context).
Proof.
  destruct (print_sp_safe newline s context 0 eq_refl) as [S D].
  split; [apply safe_flow; [exact S|apply print_no_control]|exact D].
Qed.

Theorem a64_compile_disciplined (p : prog) (lc : N) code n lc' :
  compile a64_backend p lc = Ok (code, n, lc') -> sp_disciplined code.
Proof.
  apply (compile_Q a64_backend A64PM.atemp_compare_eq Tt sp_disciplined disciplined_nil disciplined_app);
    cbn [a64_backend a64_backend_with b_temporary_from_position b_temp b_return1 b_label b_mark b_jump b_jump_label b_jump_label_fixed
         b_jcc2 b_jcc1 b_load_immediate b_load_label b_add_and_jump b_arith b_mov b_print b_erase b_share_n b_store b_load
         b_store_temporary b_restore_temporary].
  - exact tfp_Tt.
  - exact I.
  - exact I.
  - intros l. apply neutral_disciplined. nt.
  - intros c. exact disciplined_nil.
  - intros t T. apply neutral_disciplined. change TEMP with (X 2). destruct t; cbn [a_jump]; nt.
  - intros l. apply neutral_disciplined. nt.
  - intros l. apply neutral_disciplined. nt.
  - intros s a b l _ _. apply neutral_disciplined. change TEMP with (X 2). change TEMP2 with (X 3).
    apply NL_app; [destruct a, b; cbn [compare]; nt|]. constructor; [apply bcc_NL|constructor].
  - intros s a l _. apply neutral_disciplined. change TEMP with (X 2).
    apply NL_app; [destruct a; cbn [compare_immediate]; nt|]. constructor; [apply bcc_NL|constructor].
  - intros t i T. apply neutral_disciplined. apply load_immediate_NL; exact T.
  - intros t l T. apply neutral_disciplined. change TEMP with (X 2). destruct t as [[m| |]|q]; cbn [Tt a_load_label] in *; try tauto; nt.
  - intros t i T. apply neutral_disciplined. change TEMP with (X 2).
    assert (AO : forall m, NL (add_offset (X m) i)).
    { intros m. unfold add_offset. destruct (add_imm_fits i); [nt|]. apply NL_app; [change TEMP2 with (X 3); apply imm_code_NL|nt]. }
    destruct t as [[m| |]|q]; cbn [Tt a_add_and_jump] in *; try tauto; nt; apply AO.
  - intros o t a b T _ _. apply neutral_disciplined. apply arith_NL; exact T.
  - intros t s T S. apply neutral_disciplined.
    destruct t as [[tn| |]|tp], s as [[sn| |]|sp]; cbn [Tt a_mov move_from_register move_to_register app] in *; try tauto; nt.
  - intros nl t c _. apply print_disciplined.
  - intros t l _. apply neutral_disciplined. apply erase_block_NL.
  - intros t k l _. apply neutral_disciplined. apply share_block_NL.
  - intros a r l c l' H. apply neutral_disciplined. exact (store_fields_NL _ _ _ _ _ _ H).
  - intros a r l c l' H. apply neutral_disciplined. exact (a_load_NL a r l _ H).
  - intros t f T. apply neutral_disciplined. change TEMP with (X 2). destruct t as [[m| |]|q]; cbn [Tt a_store_temporary] in *; try tauto; nt.
  - intros t f T. apply neutral_disciplined. change TEMP with (X 2). destruct t as [[m| |]|q]; cbn [Tt a_restore_temporary] in *; try tauto; nt.
Qed.

Lemma move_arguments_no_control n : forall ma, move_arguments n = Ok ma -> Forall (fun c => is_control c = false) ma.
Proof.
  induction n as [|k IH]; cbn [move_arguments]; intros ma M.
  - inversion M; constructor.
  - destruct (Nat.ltb 7 (S k)); [discriminate|]. destruct (move_arguments k) as [r0|]; cbn [rbind] in M; [|discriminate].
    inversion M; subst. constructor; [reflexivity|apply IH; reflexivity].
Qed.

Lemma setup_no_control n s : setup n = Ok s -> Forall (fun c => is_control c = false) s.
Proof.
  unfold setup. destruct (move_arguments _) as [ma|] eqn:M; cbn [rbind]; [|discriminate]. intros S. injection S as <-.
  do 7 (constructor; [reflexivity|]). apply Forall_app; split; [|repeat constructor].
  exact (move_arguments_no_control _ _ M).
Qed.

(* the whole routine: preamble, prologue, the program, epilogue *)
Lemma a64_compile_inv p lc r n lc' :
  a64_compile p lc = Ok (r, n, lc') ->
  exists s body, compile a64_backend p lc = Ok (body, n, lc') /\ setup n = Ok s /\ r = preamble ++ s ++ body ++ cleanup.
Proof.
  unfold a64_compile, a64_compile_with. fold a64_backend.
  destruct (compile a64_backend p lc) as [[[is n0] l0]|]; cbn [rbind]; [|discriminate].
  unfold into_aarch64_routine. destruct (setup n0) as [s|] eqn:S; cbn [rbind]; [|discriminate].
  intros E. injection E as <- <- <-. exists s, is. split; [reflexivity|]. split; [exact S|reflexivity].
Qed.
Theorem a64_routine_sp_discipline (p : prog) (lc : N) r n lc' :
  a64_compile p lc = Ok (r, n, lc') ->
  exists s body,
    r = preamble ++ s ++ body ++ cleanup /\ setup n = Ok s /\
    sp_disciplined preamble /\
    (sp_delta s mod 16 = 0 /\ sp_safe 0 s /\ Forall (fun c => is_control c = false) s) /\
    sp_disciplined body /\
    (sp_delta s + sp_delta cleanup = 0 /\ sp_safe (sp_delta s) cleanup).
Proof.
  intros C. destruct (a64_compile_inv _ _ _ _ _ C) as (s & body & CB & S & ->). exists s, body.
  destruct (body_alignment _ _ S) as [A B].
  split; [reflexivity|]. split; [exact S|]. split; [apply neutral_disciplined; unfold preamble; nt|].
  split; [split; [exact A|split; [exact B|exact (setup_no_control _ _ S)]]|].
  split; [exact (a64_compile_disciplined _ _ _ _ _ CB)|apply (prologue_epilogue_balanced _ _ S)].
Qed.

(* the hypothesis is satisfiable: a program with two arguments that prints one of them twice *)
Definition ex_print_prog : prog :=
  mkp [mkd ("main"%string, 0%N) [mkb ("x"%string, 1%N) Ext I64; mkb ("y"%string, 2%N) Ext I64]
           (PrintI64 true ("x"%string, 1%N) (PrintI64 false ("y"%string, 2%N) (Exit ("x"%string, 1%N))))] [] 2.
Example a64_routine_sp_discipline_instance :
  exists r, a64_compile ex_print_prog 0 = Ok (r, 2%nat, 0%N) /\ List.length r = 46%nat.
Proof. eexists. split; vm_compute; reflexivity. Qed.
