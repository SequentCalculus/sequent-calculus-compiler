(* C19, code generation (generic code generator Model/Backend.v, any back end): the number of emitted
   instructions is linear in  size x (1 + maximal context length).
   The back end is abstract; its operations have abstract costs (Section hypotheses), in two units, K and M:
     - every single back-end operation (jump, move, arithmetic, label load, erase, share, ...) emits
       at most K instructions;
     - store / load of a block emit at most M * (1 + number of fields);
     - print emits at most K * (1 + context length) (caller-saved registers);
     - the parallel-move code of one Substitute (`code_exchange`) emits at most
       K * (1 + old context length + new context length).
   The last cost is provable only for a Substitute whose old and new contexts have pairwise distinct ids
   (sub_wf, Model/SizeWf.v).  One induction serves both readings: under a proposition W the cost is assumed
   only for such Substitutes and the statement has to satisfy sub_wf; W := False gives the unconditional
   reading, W := True the guarded one.
   [codegen_size_gen] bounds the code of a statement by cg_fine K M s n (Sem/WfGuard64.v), which follows the
   recursion of code_statement with the exact context lengths; cg_fine K K = K * cg_bound, and
   [cg_bound_poly] bounds cg_bound by  size * (5 + 2 * maximal context length). *)
From Coq Require Import String List ZArith NArith Bool Lia.
From SCC Require Import Base.Sexp Lang.AxSyn Lang.AxSize Model.ParMoves Model.Backend Model.Linearize Model.LinCheck Model.SizeWf
     Sem.WfGuard64 Proof.LinBasics Proof.SizeLin.
Import ListNotations.
Open Scope list_scope.
Open Scope N_scope.
Local Arguments N.add : simpl never.
Local Arguments N.mul : simpl never.
Local Arguments N.sub : simpl never.
Local Arguments N.of_nat : simpl never.
Local Arguments len : simpl never.

Lemma cg_bound_switch : forall v t cls n, cg_bound (Switch v t cls) n = 1 + (4 + len cls + cg_bound_sw n cls).
Proof. intros; simpl; do 2 f_equal; induction cls as [|[[x cc] b] r IH]; simpl; auto; rewrite IH; auto. Qed.
Lemma cg_bound_create : forall v t env cls next n,
  cg_bound (Create v t env cls next) n =
  1 + ((1 + env_len env) + 1 + cg_bound next (n - env_len env + 1) + 1 + len cls + cg_bound_cr (env_len env) cls).
Proof. intros; simpl; do 2 f_equal; induction cls as [|[[x cc] b] r IH]; simpl; auto; rewrite IH; auto. Qed.

Lemma ax_maxw_switch : forall v t cls n, ax_maxw (Switch v t cls) n = N.max n (ax_maxw_sw n cls).
Proof. intros; simpl; f_equal; induction cls as [|[[x cc] b] r IH]; simpl; auto; rewrite IH; auto. Qed.
Lemma ax_maxw_create : forall v t env cls next n,
  ax_maxw (Create v t env cls next) n =
  N.max n (N.max (N.max (env_len env) (ax_maxw next (n - env_len env + 1))) (ax_maxw_cr (env_len env) cls)).
Proof. intros; simpl; do 2 f_equal; induction cls as [|[[x cc] b] r IH]; simpl; auto; rewrite IH; auto. Qed.

(* units per unit of size when no context is longer than M: the dearest statement per unit is a Substitute,
   1 + n + (1 + n + len re) units for size 1 + len re *)
Definition cg_unit (M : N) : N := 5 + 2 * M.
Lemma cg_unit_mono : forall n a b, a <= b -> n * cg_unit a <= n * cg_unit b.
Proof. intros. apply N.mul_le_mono_l. unfold cg_unit. lia. Qed.

Ltac mono_cg W' W n :=
  let H := fresh "HM" in
  assert (H : n * cg_unit W' <= n * cg_unit W) by (apply cg_unit_mono; lia).

Lemma cg_poly_sw : forall n (cls : list (ident * ctx * stmt)),
  Forall (fun c => forall n, cg_bound (cl_body c) n <= ax_size (cl_body c) * cg_unit (ax_maxw (cl_body c) n)) cls ->
  cg_bound_sw n cls + len cls <= ax_size_cls cls * cg_unit (ax_maxw_sw n cls).
Proof.
  induction cls as [|[[x cx] b] r IH]; intros HF; simpl.
  - lnil. lia.
  - inversion HF as [|? ? Hb HF']; subst. specialize (IH HF'). unfold cl_body in Hb; simpl in Hb.
    specialize (Hb (n - 1 + len cx)). rewrite len_cons.
    set (M := N.max (ax_maxw b (n - 1 + len cx)) (ax_maxw_sw n r)).
    mono_cg (ax_maxw b (n - 1 + len cx)) M (ax_size b).
    mono_cg (ax_maxw_sw n r) M (ax_size_cls r).
    assert (HW : len cx <= ax_maxw b (n - 1 + len cx)) by (destruct b; simpl; lia).
    assert (len cx <= M) by lia.
    rewrite !N.mul_add_distr_r. unfold cg_unit at 1 2.
    assert (len cx * (5 + 2 * M) >= len cx) by nia.
    lia.
Qed.

Lemma cg_poly_cr : forall e (cls : list (ident * ctx * stmt)),
  Forall (fun c => forall n, cg_bound (cl_body c) n <= ax_size (cl_body c) * cg_unit (ax_maxw (cl_body c) n)) cls ->
  cg_bound_cr e cls + len cls <= ax_size_cls cls * cg_unit (N.max e (ax_maxw_cr e cls)).
Proof.
  induction cls as [|[[x cx] b] r IH]; intros HF; simpl.
  - lnil. lia.
  - inversion HF as [|? ? Hb HF']; subst. specialize (IH HF'). unfold cl_body in Hb; simpl in Hb.
    specialize (Hb (len cx + e)). rewrite len_cons.
    set (M := N.max e (N.max (ax_maxw b (len cx + e)) (ax_maxw_cr e r))).
    mono_cg (ax_maxw b (len cx + e)) M (ax_size b).
    mono_cg (N.max e (ax_maxw_cr e r)) M (ax_size_cls r).
    rewrite !N.mul_add_distr_r. unfold cg_unit at 1 2.
    assert (len cx * (5 + 2 * M) >= 0) by lia.
    assert (e <= M) by lia.
    lia.
Qed.

Theorem cg_bound_poly : forall s w, cg_bound s w <= ax_size s * cg_unit (ax_maxw s w).
Proof.
  induction s using stmt_ind2; intros w.
  - (* Substitute *)
    cbn [cg_bound ax_size ax_maxw]. specialize (IHs (len re)).
    set (M := N.max w (ax_maxw s (len re))).
    mono_cg (ax_maxw s (len re)) M (ax_size s).
    assert (len re <= ax_maxw s (len re)) by (destruct s; simpl; lia).
    rewrite !N.mul_add_distr_r. unfold cg_unit at 1 2.
    assert (len re * (5 + 2 * M) >= len re) by nia. lia.
  - cbn [cg_bound ax_size ax_maxw]. unfold cg_unit. nia.
  - (* Let *)
    cbn [cg_bound ax_size ax_maxw]. specialize (IHs (w - len args + 1)).
    set (M := N.max w (ax_maxw s (w - len args + 1))).
    mono_cg (ax_maxw s (w - len args + 1)) M (ax_size s).
    rewrite !N.mul_add_distr_r. unfold cg_unit at 1 2.
    assert (len args * (5 + 2 * M) >= len args) by nia. lia.
  - (* Switch *)
    rewrite cg_bound_switch, ax_size_switch, ax_maxw_switch.
    pose proof (cg_poly_sw w cls H) as HC.
    mono_cg (ax_maxw_sw w cls) (N.max w (ax_maxw_sw w cls)) (ax_size_cls cls).
    rewrite !N.mul_add_distr_r. unfold cg_unit at 1. lia.
  - (* Create *)
    rewrite cg_bound_create, ax_size_create, ax_maxw_create.
    pose proof (cg_poly_cr (env_len env) cls H) as HC. specialize (IHs (w - env_len env + 1)).
    fold (env_len env).
    set (M := N.max w (N.max (N.max (env_len env) (ax_maxw s (w - env_len env + 1))) (ax_maxw_cr (env_len env) cls))).
    mono_cg (N.max (env_len env) (ax_maxw_cr (env_len env) cls)) M (ax_size_cls cls).
    mono_cg (ax_maxw s (w - env_len env + 1)) M (ax_size s).
    rewrite !N.mul_add_distr_r. unfold cg_unit at 1 2.
    assert (env_len env * (5 + 2 * M) >= env_len env) by nia. lia.
  - cbn [cg_bound ax_size ax_maxw]. unfold cg_unit. nia.
  - cbn [cg_bound ax_size ax_maxw]. specialize (IHs (w + 1)).
    mono_cg (ax_maxw s (w + 1)) (N.max w (ax_maxw s (w + 1))) (ax_size s).
    rewrite !N.mul_add_distr_r. unfold cg_unit at 1. lia.
  - cbn [cg_bound ax_size ax_maxw]. specialize (IHs (w + 1)).
    mono_cg (ax_maxw s (w + 1)) (N.max w (ax_maxw s (w + 1))) (ax_size s).
    rewrite !N.mul_add_distr_r. unfold cg_unit at 1. lia.
  - cbn [cg_bound ax_size ax_maxw]. specialize (IHs w).
    mono_cg (ax_maxw s w) (N.max w (ax_maxw s w)) (ax_size s).
    rewrite !N.mul_add_distr_r. unfold cg_unit at 1. lia.
  - cbn [cg_bound ax_size ax_maxw]. specialize (IHs1 w). specialize (IHs2 w).
    set (M := N.max w (N.max (ax_maxw s1 w) (ax_maxw s2 w))).
    mono_cg (ax_maxw s1 w) M (ax_size s1). mono_cg (ax_maxw s2 w) M (ax_size s2).
    rewrite !N.mul_add_distr_r. unfold cg_unit at 1. lia.
  - cbn [cg_bound ax_size ax_maxw]. unfold cg_unit. lia.
Qed.

Lemma sub_wf_switch : forall c v t cls, sub_wf c (Switch v t cls) = sub_wf_sw c cls.
Proof. intros; simpl; induction cls as [|[[x cc] b] r IH]; simpl; auto; rewrite IH; auto. Qed.
Lemma sub_wf_create : forall c v t env cls next,
  sub_wf c (Create v t (Some env) cls next) =
  sub_wf_cr (skipn (List.length c - List.length env) c) cls && sub_wf (firstn (List.length c - List.length env) c ++ [idn v]) next.
Proof. intros; simpl; f_equal; induction cls as [|[[x cc] b] r IH]; simpl; auto; rewrite IH; auto. Qed.

Lemma ids_firstn : forall n c, ids (firstn n c) = firstn n (ids c).
Proof. intros. unfold ids. symmetry. apply firstn_map. Qed.
Lemma ids_skipn : forall n c, ids (skipn n c) = skipn n (ids c).
Proof. intros. unfold ids. symmetry. apply skipn_map. Qed.
Lemma ids_removelast : forall c, ids (removelast c) = removelast (ids c).
Proof. intros. rewrite !removelast_firstn_len, ids_firstn, ids_length. reflexivity. Qed.
Lemma split_last_eq : forall n c a b, split_last n c = Ok (a, b) ->
  a = firstn (List.length c - n) c /\ b = skipn (List.length c - n) c.
Proof. intros n c a b H. unfold split_last in H. destruct (Nat.leb n (List.length c)); inversion H; auto. Qed.
Lemma cg_fine_switch : forall k m v t cls n,
  cg_fine k m (Switch v t cls) n = k + (k * 4 + k * len cls + cg_fine_sw k m n cls).
Proof. intros; simpl; do 2 f_equal; induction cls as [|[[x cc] b] r IH]; simpl; auto; rewrite IH; auto. Qed.
Lemma cg_fine_create : forall k m v t env cls next n,
  cg_fine k m (Create v t env cls next) n =
  k + (m * (1 + env_len env) + k + cg_fine k m next (n - env_len env + 1) + k + k * len cls + cg_fine_cr k m (env_len env) cls).
Proof. intros; simpl; do 2 f_equal; induction cls as [|[[x cc] b] r IH]; simpl; auto; rewrite IH; auto. Qed.

Lemma map_insert_len : forall {Kt V} (cmp : Kt -> Kt -> comparison) k (v : V) m, len (map_insert cmp k v m) <= 1 + len m.
Proof.
  induction m as [|[k' v'] r IH]; simpl.
  - rewrite !len_cons, len_nil. lia.
  - destruct (cmp k k'); rewrite !len_cons in *; lia.
Qed.
Lemma transpose_len : forall re c, len (transpose re c) <= len c.
Proof.
  intros re c. unfold transpose.
  assert (G : forall m, len (fold_left (fun m b => map_insert binding_compare b
      (map (fun p => idn (bvar (fst p))) (filter (fun p => N.eqb (idn (bvar b)) (idn (snd p))) re)) m) c m) <= len c + len m).
  { induction c as [|b r IH]; intros m; simpl; [lnil; lia|].
    specialize (IH (map_insert binding_compare b (map (fun p => idn (bvar (fst p))) (filter (fun p => N.eqb (idn (bvar b)) (idn (snd p))) re)) m)).
    pose proof (map_insert_len binding_compare b (map (fun p => idn (bvar (fst p))) (filter (fun p => N.eqb (idn (bvar b)) (idn (snd p))) re)) m).
    rewrite len_cons. lia. }
  specialize (G []). rewrite len_nil in G. lia.
Qed.

Lemma split_last_len : forall n c a b, split_last n c = Ok (a, b) -> len a = len c - N.of_nat n /\ len b = N.of_nat n.
Proof.
  intros n c a b H. unfold split_last in H. destruct (Nat.leb n (List.length c)) eqn:E; [|discriminate].
  apply Nat.leb_le in E. inversion H; subst. unfold len. rewrite firstn_length, skipn_length. lia.
Qed.
Lemma removelast_len : forall {X} (l : list X), len (removelast l) = len l - 1.
Proof.
  intros X l. unfold len. destruct l as [|x l]; [reflexivity|].
  assert (x :: l <> []) by discriminate. pose proof (app_removelast_last x H) as E.
  assert (List.length (x :: l) = S (List.length (removelast (x :: l)))) by (rewrite E at 1; rewrite app_length; simpl; lia).
  lia.
Qed.

Section Cost.
Context {Code Temp : Type} (B : backend Code Temp).
Variables K M : N.
Variable W : Prop.
Hypothesis K1 : 1 <= K.
Hypothesis c_mark : forall c, len (b_mark B c) <= K.
Hypothesis c_jump : forall t, len (b_jump B t) <= K.
Hypothesis c_jump_label : forall l, len (b_jump_label B l) <= K.
Hypothesis c_jump_label_fixed : forall l, len (b_jump_label_fixed B l) <= K.
Hypothesis c_jcc2 : forall so a b l, len (b_jcc2 B so a b l) <= K.
Hypothesis c_jcc1 : forall so a l, len (b_jcc1 B so a l) <= K.
Hypothesis c_load_immediate : forall t z, len (b_load_immediate B t z) <= K.
Hypothesis c_load_label : forall t l, len (b_load_label B t l) <= K.
Hypothesis c_add_and_jump : forall t z, len (b_add_and_jump B t z) <= K.
Hypothesis c_arith : forall o a b c, len (b_arith B o a b c) <= K.
Hypothesis c_mov : forall a b, len (b_mov B a b) <= K.
Hypothesis c_print : forall nl t c, len (b_print B nl t c) <= K * (1 + len c).
Hypothesis c_erase : forall t lc, len (fst (b_erase B t lc)) <= K.
Hypothesis c_share : forall t n lc, len (fst (b_share_n B t n lc)) <= K.
Hypothesis c_store : forall a r lc code lc', b_store B a r lc = Ok (code, lc') -> len code <= M * (1 + len a).
Hypothesis c_load : forall a r lc code lc', b_load B a r lc = Ok (code, lc') -> len code <= M * (1 + len a).
Hypothesis c_exchange : forall re c code, (W -> NoDup (ids c) /\ NoDup (new_ids_of re)) ->
  code_exchange B (transpose re c) c (map fst re) = Ok code -> len code <= K * (1 + len c + len re).

Lemma urc_len : forall v c k lc c1 lc1, update_reference_count B v c k lc = Ok (c1, lc1) -> len c1 <= K.
Proof.
  intros v c k lc c1 lc1 E. unfold update_reference_count in E.
  destruct (variable_temporary B Fst c (idn v)) as [t|]; [|discriminate]. cbn [rbind] in E.
  destruct k as [|[|k]]; inversion E as [E'].
  - pose proof (c_erase t lc) as Hs. rewrite E' in Hs. exact Hs.
  - lnil; lia.
  - pose proof (c_share t (N.of_nat (S k)) lc) as Hs. rewrite E' in Hs. exact Hs.
Qed.

Lemma cwc_len : forall tm c lc code lc',
  code_weakening_contraction B tm c lc = Ok (code, lc') -> len code <= K * len tm.
Proof.
  induction tm as [|[b targets] r IH]; intros c lc code lc' H; simpl in H.
  - inversion H; subst. lnil. lia.
  - rewrite len_cons. destruct (bchi b); [| |apply IH in H; lia].
    (* Prd and Cns alike: the reference count is updated, then the rest *)
    all: bind H; destruct x as [c1 lc1]; bind H; destruct x as [c2 lc2]; inversion H; subst;
      apply IH in E0; apply urc_len in E; rewrite len_app; lia.
Qed.

Lemma code_table_len : forall (cls : list (ident * ctx * stmt)) base, len (code_table B cls base) <= K * len cls.
Proof.
  induction cls as [|c r IH]; intros base; unfold code_table in *; cbn [flat_map].
  - lnil. lia.
  - rewrite len_app, len_cons. specialize (IH base). pose proof (c_jump_label_fixed (base +++ "_" +++ show_ident (cl_xtor c))). lia.
Qed.

Theorem codegen_size_gen : forall types s c lc code lc',
  (W -> sub_wf (ids c) s = true) ->
  code_statement B types s c lc = Ok (code, lc') -> len code <= cg_fine K M s (len c).
Proof.
  intros types s; induction s using stmt_ind2; intros c lc code lc' HW HC.
  - (* Substitute *)
    assert (HN : W -> NoDup (ids c) /\ NoDup (new_ids_of re) /\ sub_wf (new_ids_of re) s = true).
    { intros w. specialize (HW w). cbn [sub_wf] in HW. rewrite !andb_true_iff, !nodupb_NoDup in HW. tauto. }
    cbn [code_statement] in HC. bind HC. destruct x as [body lcb]. cbn [fst snd] in HC. inversion HC; subst; clear HC.
    bind E. destruct x as [c1 lc1]. bind E. rename x into c2. bind E. destruct x as [c3 lc3]. inversion E; subst; clear E.
    apply cwc_len in E0. pose proof (transpose_len re c). apply c_exchange in E1; [|intros w; split; apply HN, w].
    apply IHs in E2; [|intros w; unfold ids; rewrite map_map; apply HN, w].
    rewrite len_map in *. lens. cbn [cg_fine]. pose proof (c_mark c).
    assert (K * len (transpose re c) <= K * len c) by (apply N.mul_le_mono_l; auto).
    rewrite ?N.mul_add_distr_l in *. lia.
  - (* Call *)
    cbn [code_statement] in HC. cbn [rbind fst snd] in HC. inversion HC; subst. lens. cbn [cg_fine].
    pose proof (c_mark c). pose proof (c_jump_label (show_ident l +++ "_")). lia.
  - (* Let *)
    cbn [code_statement] in HC. bind HC. destruct x as [body lcb]. cbn [fst snd] in HC. inversion HC; subst; clear HC.
    bind E. bind E. bind E. destruct x1 as [rest arguments]. bind E. destruct x1 as [c1 lc1]. bind E. bind E. destruct x2 as [c3 lc3].
    inversion E; subst; clear E.
    pose proof (split_last_eq _ _ _ _ E2) as [Er _].
    apply split_last_len in E2 as [L1 L2]. apply c_store in E3.
    apply IHs in E5; [|intros w; specialize (HW w); cbn [sub_wf] in HW; rewrite ids_app, Er, ids_firstn; cbn [ids map bvar]; rewrite ids_length in HW; exact HW].
    rewrite len_app, len_cons, len_nil, L1 in E5. fold (len args) in *. rewrite L2 in E3.
    lens. cbn [cg_fine]. pose proof (c_mark c). pose proof (c_load_immediate x1 (b_jump_length B x0)).
    replace (len c - len args + (1 + 0)) with (len c - len args + 1) in E5 by lia.
    rewrite ?N.mul_add_distr_l in *. lia.
  - (* Switch *)
    rewrite cg_fine_switch.
    cbn [code_statement] in HC. bind HC. destruct x as [body lcb]. cbn [fst snd] in HC. inversion HC; subst; clear HC.
    bind E. rename x into c1. bind E. destruct x as [c3 lc3]. inversion E; subst; clear E.
    assert (L1 : len c1 <= K * 3).
    { match type of E0 with (if ?b then _ else _) = _ => destruct b end; [inversion E0; subst; lnil; lia|].
      bind E0. inversion E0; subst. lens.
      pose proof (c_load_label (b_temp B) (type_label t (lc + 1))). pose proof (c_arith Sum (b_temp B) (b_temp B) x). pose proof (c_jump (b_temp B)). lia. }
    assert (L2 : len (if Nat.leb (List.length cls) 1 then [] else code_table B cls (type_label t (lc + 1))) <= K * len cls).
    { match goal with |- context [if ?b then _ else _] => destruct b end; [lnil; lia|apply code_table_len]. }
    assert (L3 : len c3 <= cg_fine_sw K M (len c) cls).
    { clear E0 L1 L2.
      match type of E1 with ?F cls ?l0 = _ =>
        assert (G : forall l lc0 c3 lc3,
                  Forall (fun c : clause => forall (c0 : ctx) (lc : N) (code : list Code) (lc' : N),
                            (W -> sub_wf (ids c0) (cl_body c) = true) ->
                            code_statement B types (cl_body c) c0 lc = Ok (code, lc') -> len code <= cg_fine K M (cl_body c) (len c0)) l ->
                  (W -> sub_wf_sw (ids c) l = true) ->
                  F l lc0 = Ok (c3, lc3) -> len c3 <= cg_fine_sw K M (len c) l)
      end.
      { clear E1 HW. induction l as [|[[x cx] b] r IHr]; intros lc0 c3' lc3' HF HWl E1.
        - inversion E1; subst. cbn [cg_fine_sw]. lnil. lia.
        - inversion HF as [|? ? Hb Hr]; subst.
          assert (HWb : W -> sub_wf (removelast (ids c) ++ ids cx) b = true /\ sub_wf_sw (ids c) r = true)
            by (intros w; apply andb_true_iff, (HWl w)).
          bind E1. destruct x0 as [cl lc1]. bind E1. destruct x0 as [cb lc2]. bind E1. destruct x0 as [cr lc3''].
          inversion E1; subst; clear E1. apply c_load in E. apply Hb in E0; [|intros w; unfold cl_body; cbn [snd]; rewrite ids_app, ids_removelast; apply HWb, w].
          apply IHr in E2; [|assumption|intros w; apply HWb, w].
          unfold cl_body in E0; cbn [snd] in E0. rewrite len_app, removelast_len in E0.
          cbn [cg_fine_sw]. lens. rewrite ?N.mul_add_distr_l in *. lia. }
      eapply G; [exact H | intros w; rewrite <- (sub_wf_switch _ v t); exact (HW w) | exact E1]. }
    lens. pose proof (c_mark c). rewrite ?N.mul_add_distr_l in *. unfold clause in *. lia.
  - (* Create *)
    rewrite cg_fine_create.
    cbn [code_statement] in HC. bind HC. destruct x as [body lcb]. cbn [fst snd] in HC. inversion HC; subst; clear HC.
    destruct env as [env|]; [|discriminate].
    assert (HWc : W -> sub_wf_cr (ids (skipn (List.length c - List.length env) c)) cls = true /\
                     sub_wf (firstn (List.length c - List.length env) (ids c) ++ [idn v]) s = true).
    { intros w. specialize (HW w). rewrite sub_wf_create, andb_true_iff, !ids_length in HW. rewrite ids_skipn. exact HW. }
    bind E. destruct x as [rest cenv]. bind E. destruct x as [c1 lc1]. bind E. rename x into tmpv. bind E. destruct x as [c3 lc3].
    bind E. destruct x as [c5 lc5]. inversion E; subst; clear E.
    pose proof (split_last_eq _ _ _ _ E0) as [Er Ece].
    apply split_last_len in E0 as [L1 L2]. apply c_store in E1.
    apply IHs in E3; [|intros w; rewrite ids_app, Er, ids_firstn; apply HWc, w].
    rewrite len_app, len_cons, len_nil, L1 in E3. fold (len env) in *. rewrite L2 in E1.
    assert (L4 : len (if Nat.leb (List.length cls) 1 then [] else code_table B cls (type_label t (lc1 + 1))) <= K * len cls).
    { match goal with |- context [if ?b then _ else _] => destruct b end; [lnil; lia|apply code_table_len]. }
    assert (L5 : len c5 <= cg_fine_cr K M (len env) cls).
    { clear L4 E3 E2 E1.
      match type of E4 with ?F cls ?l0 = _ =>
        assert (G : forall l lc0 c3 lc3,
                  Forall (fun c : clause => forall (c0 : ctx) (lc : N) (code : list Code) (lc' : N),
                            (W -> sub_wf (ids c0) (cl_body c) = true) ->
                            code_statement B types (cl_body c) c0 lc = Ok (code, lc') -> len code <= cg_fine K M (cl_body c) (len c0)) l ->
                  (W -> sub_wf_cr (ids cenv) l = true) ->
                  F l lc0 = Ok (c3, lc3) -> len c3 <= cg_fine_cr K M (len env) l)
      end.
      { clear E4 HWc. induction l as [|[[x cx] b] r IHr]; intros lc0 c3' lc3' HF HWl E4.
        - inversion E4; subst. cbn [cg_fine_cr]. lnil. lia.
        - inversion HF as [|? ? Hb Hr]; subst.
          assert (HWb : W -> sub_wf (ids cx ++ _) b = true /\ sub_wf_cr _ r = true)
            by (intros w; apply andb_true_iff, (HWl w)).
          bind E4. destruct x0 as [cl lc1']. bind E4. destruct x0 as [cb lc2]. bind E4. destruct x0 as [cr lc3''].
          inversion E4; subst; clear E4. apply c_load in E. apply Hb in E0; [|intros w; unfold cl_body; cbn [snd]; rewrite ids_app; apply HWb, w].
          apply IHr in E1; [|assumption|intros w; apply HWb, w].
          unfold cl_body in E0; cbn [snd] in E0. rewrite len_app, L2 in E0. rewrite L2 in E.
          cbn [cg_fine_cr]. lens. rewrite ?N.mul_add_distr_l in *. lia. }
      eapply G; [exact H | intros w; rewrite Ece; apply HWc, w | exact E4]. }
    lens. pose proof (c_mark c). pose proof (c_load_label tmpv (type_label t (lc1 + 1))).
    cbn [env_len].
    replace (len c - len env + (1 + 0)) with (len c - len env + 1) in E3 by lia.
    rewrite ?N.mul_add_distr_l in *. unfold clause in *. lia.
  - (* Invoke *)
    cbn [code_statement] in HC. bind HC. destruct x as [body lcb]. cbn [fst snd] in HC. inversion HC; subst; clear HC.
    bind E. bind E. pose proof (c_mark c). lens. cbn [cg_fine].
    destruct (Nat.leb (List.length (txtors x0)) 1).
    + inversion E; subst. pose proof (c_jump x). lia.
    + bind E. inversion E; subst. pose proof (c_add_and_jump x (b_jump_length B x1)). lia.
  - (* Literal *)
    cbn [code_statement] in HC. bind HC. destruct x as [body lcb]. cbn [fst snd] in HC. inversion HC; subst; clear HC.
    bind E. bind E. destruct x0 as [c2 lc2]. inversion E; subst; clear E.
    apply IHs in E1; [|intros w; rewrite ids_app; exact (HW w)]. rewrite len_app, len_cons, len_nil in E1. lens. cbn [cg_fine].
    replace (len c + (1 + 0)) with (len c + 1) in E1 by lia.
    pose proof (c_mark c). pose proof (c_load_immediate x n). rewrite ?N.mul_add_distr_l in *. lia.
  - (* Op *)
    cbn [code_statement] in HC. bind HC. destruct x as [body lcb]. cbn [fst snd] in HC. inversion HC; subst; clear HC.
    bind E. bind E. bind E. bind E. destruct x2 as [c2 lc2]. inversion E; subst; clear E.
    apply IHs in E3; [|intros w; rewrite ids_app; exact (HW w)]. rewrite len_app, len_cons, len_nil in E3. lens. cbn [cg_fine].
    replace (len c + (1 + 0)) with (len c + 1) in E3 by lia.
    pose proof (c_mark c). pose proof (c_arith o x x0 x1). rewrite ?N.mul_add_distr_l in *. lia.
  - (* PrintI64 *)
    cbn [code_statement] in HC. bind HC. destruct x as [body lcb]. cbn [fst snd] in HC. inversion HC; subst; clear HC.
    bind E. bind E. destruct x0 as [c2 lc2]. inversion E; subst; clear E.
    apply IHs in E1; [|exact HW]. lens. cbn [cg_fine].
    pose proof (c_mark c). pose proof (c_print nl x c). rewrite ?N.mul_add_distr_l in *. lia.
  - (* IfC *)
    assert (HWb : W -> sub_wf (ids c) s1 = true /\ sub_wf (ids c) s2 = true) by (intros w; apply andb_true_iff, (HW w)).
    cbn [code_statement] in HC. bind HC. destruct x as [body lcb]. cbn [fst snd] in HC. inversion HC; subst; clear HC.
    bind E. rename x into ta. bind E. rename x into c1. bind E. destruct x as [c2 lc2]. bind E. destruct x as [c3 lc3]. inversion E; subst; clear E.
    apply IHs2 in E2; [|intros w; apply HWb, w]. apply IHs1 in E3; [|intros w; apply HWb, w]. lens. cbn [cg_fine].
    assert (len c1 <= K).
    { destruct b as [b|]; [bind E1|]; inversion E1; subst; [apply c_jcc2|apply c_jcc1]. }
    pose proof (c_mark c). rewrite ?N.mul_add_distr_l in *. lia.
  - (* Exit *)
    cbn [code_statement] in HC. bind HC. destruct x as [body lcb]. cbn [fst snd] in HC. inversion HC; subst; clear HC.
    bind E. inversion E; subst. lens. cbn [cg_fine].
    pose proof (c_mark c). pose proof (c_mov (b_return1 B) x). pose proof (c_jump_label "cleanup"). lia.
Qed.

Theorem translate_size_gen : forall types ds lc code lc',
  (W -> sub_wf_defs ds = true) ->
  translate B types ds lc = Ok (code, lc') -> len code <= cg_fine_defs K M ds.
Proof.
  induction ds as [|d r IH]; intros lc code lc' HW H; simpl in H.
  - inversion H; subst. lnil. lia.
  - assert (HWd : W -> sub_wf (ids (dctx d)) (dbody d) = true /\ sub_wf_defs r = true)
      by (intros w; apply andb_true_iff, (HW w)).
    bind H. destruct x as [c1 lc1]. bind H. destruct x as [c2 lc2]. inversion H; subst; clear H.
    apply codegen_size_gen in E; [|intros w; apply HWd, w]. apply IH in E0; [|intros w; apply HWd, w]. simpl. lens.
    rewrite ?N.mul_add_distr_l in *. lia.
Qed.
End Cost.

Lemma cg_fine_same : forall k s n, cg_fine k k s n = k * cg_bound s n.
Proof.
  intros k s; induction s using stmt_ind2; intros w;
    rewrite ?cg_fine_switch, ?cg_bound_switch, ?cg_fine_create, ?cg_bound_create; cbn [cg_fine cg_bound];
    rewrite ?IHs, ?IHs1, ?IHs2; try lia.
  - assert (G : cg_fine_sw k k w cls = k * cg_bound_sw w cls); [|lia].
    induction H as [|[[x cx] b] r Hb _ IHr]; cbn [cg_fine_sw cg_bound_sw]; [lia|].
    unfold cl_body in Hb; cbn [snd] in Hb. rewrite Hb, IHr. lia.
  - assert (G : cg_fine_cr k k (env_len env) cls = k * cg_bound_cr (env_len env) cls); [|lia].
    induction H as [|[[x cx] b] r Hb _ IHr]; cbn [cg_fine_cr cg_bound_cr]; [lia|].
    unfold cl_body in Hb; cbn [snd] in Hb. rewrite Hb, IHr. lia.
Qed.
Lemma cg_fine_defs_same : forall k ds, cg_fine_defs k k ds = k * cg_bound_defs ds.
Proof. induction ds as [|d r IH]; cbn [cg_fine_defs cg_bound_defs]; rewrite ?cg_fine_same, ?IH; lia. Qed.

(* the unconditional reading: one unit, the parallel-move cost assumed of every move table *)
Section CostAll.
Context {Code Temp : Type} (B : backend Code Temp).
Variable K : N.
Hypothesis K1 : 1 <= K.
Hypothesis c_mark : forall c, len (b_mark B c) <= K.
Hypothesis c_jump : forall t, len (b_jump B t) <= K.
Hypothesis c_jump_label : forall l, len (b_jump_label B l) <= K.
Hypothesis c_jump_label_fixed : forall l, len (b_jump_label_fixed B l) <= K.
Hypothesis c_jcc2 : forall so a b l, len (b_jcc2 B so a b l) <= K.
Hypothesis c_jcc1 : forall so a l, len (b_jcc1 B so a l) <= K.
Hypothesis c_load_immediate : forall t z, len (b_load_immediate B t z) <= K.
Hypothesis c_load_label : forall t l, len (b_load_label B t l) <= K.
Hypothesis c_add_and_jump : forall t z, len (b_add_and_jump B t z) <= K.
Hypothesis c_arith : forall o a b c, len (b_arith B o a b c) <= K.
Hypothesis c_mov : forall a b, len (b_mov B a b) <= K.
Hypothesis c_print : forall nl t c, len (b_print B nl t c) <= K * (1 + len c).
Hypothesis c_erase : forall t lc, len (fst (b_erase B t lc)) <= K.
Hypothesis c_share : forall t n lc, len (fst (b_share_n B t n lc)) <= K.
Hypothesis c_store : forall a r lc code lc', b_store B a r lc = Ok (code, lc') -> len code <= K * (1 + len a).
Hypothesis c_load : forall a r lc code lc', b_load B a r lc = Ok (code, lc') -> len code <= K * (1 + len a).
Hypothesis c_exchange : forall tm c nc code, code_exchange B tm c nc = Ok code -> len code <= K * (1 + len c + len nc).

Let c_exchange_all : forall re c code, (False -> NoDup (ids c) /\ NoDup (new_ids_of re)) ->
  code_exchange B (transpose re c) c (map fst re) = Ok code -> len code <= K * (1 + len c + len re).
Proof. intros re c code _ H. apply c_exchange in H. rewrite len_map in H. exact H. Qed.

Theorem codegen_size_exact : forall types s c lc code lc',
  code_statement B types s c lc = Ok (code, lc') -> len code <= K * cg_bound s (len c).
Proof.
  intros types s c lc code lc' H. eapply (codegen_size_gen B K K False) in H; eauto.
  rewrite cg_fine_same in H. exact H.
Qed.

(* headline: instructions <= K * size * (5 + 2 * maximal context length) *)
Theorem codegen_size_lemma : forall types s c lc code lc',
  code_statement B types s c lc = Ok (code, lc') ->
  len code <= K * (ax_size s * (5 + 2 * ax_maxw s (len c))).
Proof.
  intros types s c lc code lc' H. apply codegen_size_exact in H.
  pose proof (cg_bound_poly s (len c)) as P. unfold cg_unit in P.
  assert (K * cg_bound s (len c) <= K * (ax_size s * (5 + 2 * ax_maxw s (len c)))) by (apply N.mul_le_mono_l; auto).
  lia.
Qed.

(* whole program: `translate` concatenates label + code of every definition *)
Theorem translate_size_lemma : forall types ds lc code lc',
  translate B types ds lc = Ok (code, lc') -> len code <= K * cg_bound_defs ds.
Proof.
  intros types ds lc code lc' H. eapply (translate_size_gen B K K False) in H; eauto.
  rewrite cg_fine_defs_same in H. exact H.
Qed.
End CostAll.
