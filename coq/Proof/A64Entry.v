(* C13 on AArch64, entry and exit of the generated routine on the ISA semantics: the prologue
   (Model/A64.setup) stores X19-X29 and X30 below the entry SP, reserves the spill area, moves the
   entry arguments to the variable registers and initialises FREE; the epilogue (Model/A64.cleanup)
   run from ANY later state with the body's SP and the saved cells intact gives every callee-saved
   register, the link register and SP their entry values and leaves X0 (the result) alone. *)
From Coq Require Import List ZArith NArith String Bool Lia FMapPositive.
From SCC Require Import Base.Sexp Lang.AxSyn Sem.AxSem Model.Backend Model.A64 Sem.A64Sem Generated.Constants
     Proof.A64State Proof.A64Wf Proof.A64Print.
Import ListNotations.
Open Scope Z_scope.

Section Entry.
Variable im : image.

Lemma step_STP_sp s b a1 a2 :
  spv s = Some b -> b mod 16 = 0 -> STACK_LIMIT <= b - 16 -> b <= STACK_TOP ->
  step im (STP_PRE_INDEX (X a1) (X a2) SP (-16)) s =
  Next (set_sp (stk_set (stk_set s (b - 16) (xget s a1)) (b - 16 + 8) (xget s a2)) (Some (b - 16))).
Proof.
  intros Hs Hb L H. cbn [step]. rewrite (ea_aligned s b) by assumption.
  rewrite mstore_cell by (apply cell_ok_at; auto; lia). cbn [withm].
  rewrite mstore_cell; [reflexivity|].
  replace (b + -16 + 8) with (b + -8) by lia. apply cell_ok_at; auto; lia.
Qed.
Lemma step_LDP_sp s b d1 d2 :
  spv s = Some b -> b mod 16 = 0 -> STACK_LIMIT <= b -> b + 16 <= STACK_TOP ->
  step im (LDP_POST_INDEX (X d1) (X d2) SP 16) s =
  Next (set_sp (xset (xset s d1 (PM.find (key b) (stack s))) d2 (PM.find (key (b + 8)) (stack s))) (Some (b + 16))).
Proof.
  intros Hs Hb L H. cbn [step]. rewrite (ea_aligned s b), Z.add_0_r by assumption.
  assert (C : cell_ok b) by (rewrite <- (Z.add_0_r b); apply cell_ok_at; auto; lia).
  rewrite mload_cell by exact C. cbn [withm]. rewrite mload_cell by (apply cell_ok_at; auto; lia). reflexivity.
Qed.

Definition pair_regs (l : list (N * N)) : list N := flat_map (fun p => [fst p; snd p]) l.

(* STP pre-index pushes of the pairs l, then, from ANY state with the same SP whose stack agrees
   with the one left by the pushes at and above that SP, LDP post-index pops of the pairs in reverse
   order: SP and the pushed registers are back at their values before the pushes. *)
Lemma push_pop (l : list (N * N)) : forall s b,
  spv s = Some b -> b mod 16 = 0 -> STACK_LIMIT + 16 * Z.of_nat (List.length l) <= b -> b <= STACK_TOP ->
  NoDup (pair_regs l) ->
  exists s1,
    run_straight im (map (fun p : N * N => STP_PRE_INDEX (X (fst p)) (X (snd p)) SP (-16)) l) s = MOk s1 /\
    spv s1 = Some (b - 16 * Z.of_nat (List.length l)) /\ regs s1 = regs s /\ heap s1 = heap s /\ out s1 = out s /\
    (forall k, b <= Z.pos k - 1 -> PM.find k (stack s1) = PM.find k (stack s)) /\
    forall s2,
      spv s2 = Some (b - 16 * Z.of_nat (List.length l)) ->
      (forall k, b - 16 * Z.of_nat (List.length l) <= Z.pos k - 1 -> PM.find k (stack s2) = PM.find k (stack s1)) ->
      exists s3,
        run_straight im (map (fun p : N * N => LDP_POST_INDEX (X (fst p)) (X (snd p)) SP 16) (rev l)) s2 = MOk s3 /\
        spv s3 = Some b /\ stack s3 = stack s2 /\ heap s3 = heap s2 /\ out s3 = out s2 /\
        (forall r, In r (pair_regs l) -> xget s3 r = xget s r) /\
        (forall r, ~ In r (pair_regs l) -> xget s3 r = xget s2 r).
Proof.
  induction l as [|[a1 a2] l IH]; intros s b Hs Hb Lo Hi ND.
  - cbn [List.length Z.of_nat rev map run_straight]. rewrite Z.mul_0_r, Z.sub_0_r.
    exists s. split; [reflexivity|]. split; [exact Hs|]. repeat (split; [reflexivity|]).
    intros s2 S2 _. exists s2. split; [reflexivity|]. split; [exact S2|]. repeat (split; [reflexivity|]).
    split; [intros r []|reflexivity].
  - assert (SL : 0 < STACK_LIMIT) by (unfold STACK_LIMIT, STACK_TOP; lia).
    replace (Z.of_nat (List.length ((a1, a2) :: l))) with (Z.of_nat (List.length l) + 1) in * by (cbn [List.length]; lia).
    replace (b - 16 * (Z.of_nat (List.length l) + 1)) with (b - 16 - 16 * Z.of_nat (List.length l)) by lia.
    cbn [pair_regs flat_map app fst snd] in ND. fold (pair_regs l) in ND.
    inversion ND as [|? ? N1 ND1]; subst. inversion ND1 as [|? ? N2 ND2]; subst.
    cbn [In] in N1. apply Decidable.not_or in N1 as [N12 N1].
    cbn [map run_straight fst snd]. rewrite (step_STP_sp s b) by (auto; lia).
    set (sA := set_sp _ _).
    assert (KA : forall k, k <> key (b - 16) -> k <> key (b - 16 + 8) -> PM.find k (stack sA) = PM.find k (stack s)).
    { intros k K1 K2. unfold sA. cbn [stack set_sp]. rewrite !find_stk_set_other by assumption. reflexivity. }
    destruct (IH sA (b - 16)) as (s1 & E1 & S1 & R1 & H1 & O1 & K1 & POP);
      [reflexivity|rewrite Zminus_mod, Hb; reflexivity|lia|lia|exact ND2|].
    exists s1. split; [exact E1|]. split; [exact S1|]. split; [exact R1|]. split; [exact H1|]. split; [exact O1|].
    split.
    { intros k Hk. rewrite K1 by lia. apply KA; intros ->; rewrite pos_key in Hk; lia. }
    intros s2 S2 K2.
    destruct (POP s2 S2) as (s3 & E3 & S3 & T3 & H3 & O3 & X3 & Y3); [intros k Hk; apply K2; exact Hk|].
    cbn [rev]. rewrite map_app, run_straight_app, E3. cbn [map run_straight fst snd].
    rewrite (step_LDP_sp s3 (b - 16)) by (auto; try lia; rewrite Zminus_mod, Hb; reflexivity).
    (* the two cells of this pair, as the pops below them and the code in between left them *)
    assert (C : forall a, b - 16 <= a < b -> PM.find (key a) (stack s3) = PM.find (key a) (stack sA)).
    { intros a Ha. rewrite T3, K2, K1 by (rewrite pos_key; lia). reflexivity. }
    rewrite !C by lia. unfold sA at 1 2. cbn [stack set_sp].
    rewrite find_stk_set_same, find_stk_set_other, find_stk_set_same by (intros E; apply key_inj in E; lia).
    eexists. split; [reflexivity|]. split; [cbn [spv set_sp]; f_equal; lia|].
    split; [exact T3|]. split; [exact H3|]. split; [exact O3|].
    change (xget (set_sp ?t _) ?r) with (xget t r).
    split; intros r Hr; cbn [pair_regs flat_map app fst snd In] in Hr; fold (pair_regs l) in Hr.
    + destruct Hr as [<-|[<-|Hr]].
      * rewrite xget_xset_other by exact N12. apply xget_xset_same.
      * apply xget_xset_same.
      * rewrite !xget_xset_other by (intros E; subst r; contradiction). apply (X3 r Hr).
    + apply Decidable.not_or in Hr as [Hr1 Hr]. apply Decidable.not_or in Hr as [Hr2 Hr].
      rewrite !xget_xset_other by assumption. exact (Y3 r Hr).
Qed.

(* the argument moves: argument j (in Xj, j = 1..n) ends up in X(2j+3), the second temporary of variable j-1 *)
Lemma move_arguments_ok n : forall ma s,
  move_arguments n = Ok ma ->
  exists s', run_straight im ma s = MOk s' /\
    spv s' = spv s /\ stack s' = stack s /\ heap s' = heap s /\ out s' = out s /\
    (forall j, (1 <= j <= n)%nat -> xget s' (2 * N.of_nat j + 3) = xget s (N.of_nat j)) /\
    (forall m, (m < 5 \/ 2 * N.of_nat n + 3 < m)%N -> xget s' m = xget s m).
Proof.
  induction n as [|m IH]; intros ma s M; cbn [move_arguments] in M.
  - injection M as <-. exists s. cbn. repeat split; auto. intros j Hj; lia.
  - destruct (Nat.ltb 7 (S m)); [discriminate|]. destruct (move_arguments m) as [r|] eqn:Mr; cbn [rbind] in M; [|discriminate].
    injection M as <-. cbn [app run_straight step rget rset].
    set (s1 := xset s _ _).
    destruct (IH r s1 eq_refl) as (s' & E & S' & K' & H' & O' & A' & X').
    exists s'. split; [exact E|]. split; [rewrite S'; reflexivity|]. split; [rewrite K'; reflexivity|].
    split; [rewrite H'; reflexivity|]. split; [rewrite O'; reflexivity|]. split.
    + intros j Hj. destruct (Nat.eq_dec j (S m)) as [->|NE].
      * rewrite X' by lia. unfold s1. apply xget_xset_same.
      * rewrite A' by lia. unfold s1. apply xget_xset_other. lia.
    + intros k Hk. rewrite X' by lia. unfold s1. apply xget_xset_other. lia.
Qed.

Definition callee_pairs : list (N * N) := [(18, 19); (20, 21); (22, 23); (24, 25); (26, 27); (28, 29)]%N.

Theorem a64_entry_exit_ok n cs s sp0 h :
  setup n = Ok cs ->
  spv s = Some sp0 -> sp0 mod 16 = 0 -> STACK_LIMIT + 2144 <= sp0 -> sp0 <= STACK_TOP -> xget s 0 = Some h ->
  exists s1,
    run_straight im cs s = MOk s1 /\
    frame_ok s1 (sp0 - 2144) /\ heap s1 = heap s /\ out s1 = out s /\
    xget s1 0 = Some h /\ xget s1 1 = Some (wrap (h + field_offset Fst FIELDS_PER_BLOCK)) /\
    (forall j, (1 <= j <= n)%nat -> xget s1 (2 * N.of_nat j + 3) = xget s (N.of_nat j)) /\
    (forall k, sp0 <= Z.pos k - 1 -> PM.find k (stack s1) = PM.find k (stack s)) /\
    forall s2,
      spv s2 = Some (sp0 - 2144) ->
      (forall k, sp0 - 96 <= Z.pos k - 1 -> PM.find k (stack s2) = PM.find k (stack s1)) ->
      exists s3,
        run_straight im (removelast cleanup) s2 = MOk s3 /\
        spv s3 = Some sp0 /\
        (forall r, (18 <= r <= 29)%N -> xget s3 r = xget s r) /\
        (forall r, (r < 18)%N -> xget s3 r = xget s2 r) /\
        heap s3 = heap s2 /\ out s3 = out s2 /\ stack s3 = stack s2.
Proof.
  intros SU Hs Ha Lo Hi H0.
  unfold setup, rbind in SU. destruct (move_arguments n) as [ma|] eqn:M; [|discriminate]. injection SU as <-.
  match goal with |- context [run_straight im ?c s] =>
    change c with (map (fun p : N * N => STP_PRE_INDEX (X (fst p)) (X (snd p)) SP (-16)) callee_pairs ++ [SUBI SP SP SPILL_SPACE]
                   ++ ma ++ [MOVR FREE HEAP; ADDI FREE FREE (field_offset Fst FIELDS_PER_BLOCK)])%list end.
  assert (IN : forall r, In r (pair_regs callee_pairs) <-> (18 <= r <= 29)%N) by (intros r; cbn; lia).
  destruct (push_pop callee_pairs s sp0 Hs Ha) as (sa & Ea & Sa & Ra & Ha' & Oa & Ka & POP);
    [change (List.length callee_pairs) with 6%nat; lia|exact Hi|apply (NoDup_map_inv N.to_nat); exact (seq_NoDup 12 18)|].
  change (Z.of_nat (List.length callee_pairs)) with 6 in Sa, POP. replace (sp0 - 16 * 6) with (sp0 - 96) in Sa, POP by lia.
  rewrite run_straight_app, Ea. change SPILL_SPACE with 2048.
  cbn [app run_straight]. rewrite (step_SUBI_sp im sa (sp0 - 96)) by (auto; lia).
  replace (sp0 - 96 - 2048) with (sp0 - 2144) by lia. set (sb := set_sp sa (Some (sp0 - 2144))).
  rewrite run_straight_app.
  destruct (move_arguments_ok n ma sb M) as (sc & Ec & Sc & Kc & Hc & Oc & Ac & Xc).
  rewrite Ec. cbn [run_straight step rget rset]. unfold arith_imm, need. cbn [rget].
  change FREE with (X 1). change HEAP with (X 0). cbn [rget rset]. rewrite xget_xset_same.
  assert (XA : forall r, xget sb r = xget s r) by (intros r; unfold xget; cbn [sb set_sp regs]; rewrite Ra; reflexivity).
  assert (X0c : xget sc 0 = Some h) by (rewrite Xc, XA by lia; exact H0).
  rewrite X0c.
  eexists. split; [reflexivity|].
  split; [split; [exact Sc|]; split; [rewrite Zminus_mod, Ha; reflexivity|change SPILL_SPACE with 2048; lia]|].
  split; [cbn [heap xset]; rewrite Hc; exact Ha'|]. split; [cbn [out xset]; rewrite Oc; exact Oa|].
  split; [rewrite !xget_xset_other by lia; exact X0c|]. split; [apply xget_xset_same|].
  split; [intros j Hj; rewrite !xget_xset_other, Ac by lia; apply XA|].
  cbn [stack xset]. rewrite Kc. change (stack sb) with (stack sa).
  split; [exact Ka|].
  (* the epilogue *)
  intros s2 S2 K2.
  change (removelast cleanup) with
    ([LAB "cleanup"%string; ADDI SP SP SPILL_SPACE] ++
     map (fun p : N * N => LDP_POST_INDEX (X (fst p)) (X (snd p)) SP 16) (rev callee_pairs))%list.
  change SPILL_SPACE with 2048. cbn [app run_straight]. change (step im (LAB "cleanup"%string) s2) with (Next s2). cbn beta iota.
  rewrite (step_ADDI_sp im s2 (sp0 - 2144)) by (auto; lia).
  replace (sp0 - 2144 + 2048) with (sp0 - 96) by lia.
  destruct (POP (set_sp s2 (Some (sp0 - 96))) eq_refl K2) as (s3 & E3 & S3 & T3 & H3 & O3 & X3 & Y3).
  exists s3. split; [exact E3|]. split; [exact S3|].
  split; [intros r Hr; apply X3, IN, Hr|]. split; [|split; [exact H3|split; [exact O3|exact T3]]].
  intros r Hr. apply Y3. rewrite IN. lia.
Qed.
End Entry.
