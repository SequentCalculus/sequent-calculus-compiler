(* C20: the run-time support (Model/Runtime.v).  print_i64 / println_i64 write Coq's decimal notation of their argument
   ([decimal]; the digits of |v| come from the io.c loop, [digit_loop_at]) and never leave the buffer; atoll reads it back;
   the driver's exit status and the arguments it hands to asm_main; the x86-64 and AArch64 prologues move them to the
   parameter registers (the RISC-V prologue is not modelled).  Statements of Props/C20.v mention [digs], [seq_nat] and
   [entry_regs], which are defined here. *)
From Coq Require Import List ZArith NArith String Ascii Bool Lia DecimalString DecimalZ Decimal.
From SCC Require Import Generated.Constants Model.Runtime.
Import ListNotations.
Open Scope Z_scope.

Lemma upd_length : forall l i c, List.length (upd l i c) = List.length l.
Proof. induction l as [|x l IH]; intros [|i] c; simpl; auto. Qed.

Lemma upd_spec : forall l i c, (i < List.length l)%nat ->
  upd l i c = firstn i l ++ c :: skipn (S i) l.
Proof.
  induction l as [|x l IH]; intros [|i] c Hi; simpl in *; try lia; auto.
  f_equal. apply IH. lia.
Qed.

(* digits of a number, most significant first (proof-side only) *)
Fixpoint digs (f : nat) (m : Z) : list Z :=
  match f with
  | O => []
  | S f' => if m / 10 =? 0 then [m mod 10] else digs f' (m / 10) ++ [m mod 10]
  end.

Definition horner (l : list Z) (acc : Z) : Z := fold_left (fun a d => 10 * a + d) l acc.

Lemma horner_app : forall l1 l2 acc, horner (l1 ++ l2) acc = horner l2 (horner l1 acc).
Proof. intros. unfold horner. apply fold_left_app. Qed.

Lemma horner_single : forall d a, horner [d] a = 10 * a + d.
Proof. reflexivity. Qed.

Lemma pow10_S : forall f, 10 ^ Z.of_nat (S f) = 10 * 10 ^ Z.of_nat f.
Proof. intros. rewrite Nat2Z.inj_succ, Z.pow_succ_r by lia. reflexivity. Qed.

Lemma digs_horner : forall f m, 0 <= m < 10 ^ Z.of_nat f -> horner (digs f m) 0 = m.
Proof.
  induction f as [|f IH]; intros m Hm.
  - change (10 ^ Z.of_nat 0) with 1 in Hm. cbn. lia.
  - rewrite pow10_S in Hm. cbn [digs].
    destruct (m / 10 =? 0) eqn:E.
    + apply Z.eqb_eq in E. rewrite horner_single. pose proof (Z.div_mod m 10 ltac:(lia)). lia.
    + apply Z.eqb_neq in E. rewrite horner_app, IH.
      * rewrite horner_single. pose proof (Z.div_mod m 10 ltac:(lia)). lia.
      * split; [apply Z.div_pos; lia|]. apply Z.div_lt_upper_bound; lia.
Qed.

Lemma digs_range : forall f m, Forall (fun d => 0 <= d < 10) (digs f m).
Proof.
  induction f as [|f IH]; intros m; cbn [digs]; [constructor|].
  pose proof (Z.mod_pos_bound m 10 ltac:(lia)).
  destruct (m / 10 =? 0).
  - constructor; [lia|constructor].
  - apply Forall_app. split; [apply IH|]. constructor; [lia|constructor].
Qed.

Lemma digs_length_pos : forall f m, (1 <= List.length (digs (S f) m))%nat.
Proof.
  intros. cbn [digs]. destruct (m / 10 =? 0); [simpl; lia|]. rewrite app_length. simpl. lia.
Qed.

Lemma digs_length_le : forall f g m, 0 <= m < 10 ^ Z.of_nat (S g) ->
  (List.length (digs f m) <= S g)%nat.
Proof.
  induction f as [|f IH]; intros g m Hm; cbn [digs]; [simpl; lia|].
  destruct (m / 10 =? 0) eqn:E; [simpl; lia|].
  apply Z.eqb_neq in E. rewrite app_length. simpl.
  destruct g as [|g].
  - exfalso. apply E. apply Z.div_small. change (10 ^ Z.of_nat 1) with 10 in Hm. lia.
  - rewrite pow10_S in Hm.
    assert (List.length (digs f (m / 10)) <= S g)%nat; [|lia].
    apply IH. split; [apply Z.div_pos; lia|]. apply Z.div_lt_upper_bound; lia.
Qed.

Lemma digs_head : forall f m, 0 < m < 10 ^ Z.of_nat f ->
  exists d r, digs f m = d :: r /\ 0 < d < 10.
Proof.
  induction f as [|f IH]; intros m Hm.
  - change (10 ^ Z.of_nat 0) with 1 in Hm. lia.
  - rewrite pow10_S in Hm. cbn [digs]. destruct (m / 10 =? 0) eqn:E.
    + apply Z.eqb_eq in E. exists (m mod 10), []. split; auto.
      pose proof (Z.div_mod m 10 ltac:(lia)). pose proof (Z.mod_pos_bound m 10 ltac:(lia)). lia.
    + apply Z.eqb_neq in E.
      destruct (IH (m / 10)) as (d & r & Hd & Hr).
      * assert (0 <= m / 10) by (apply Z.div_pos; lia).
        split; [lia|]. apply Z.div_lt_upper_bound; lia.
      * rewrite Hd. exists d, (r ++ [m mod 10]). auto.
Qed.

Lemma digs_zero : forall f, digs (S f) 0 = [0].
Proof. reflexivity. Qed.

(* bridge to Coq's decimal numbers (Decimal.uint, Z.to_int) *)
Definition dcons (d : Z) (u : uint) : uint :=
  match d with
  | 0 => D0 u | 1 => D1 u | 2 => D2 u | 3 => D3 u | 4 => D4 u
  | 5 => D5 u | 6 => D6 u | 7 => D7 u | 8 => D8 u | _ => D9 u
  end.
Fixpoint uint_of (l : list Z) : uint :=
  match l with [] => Nil | d :: r => dcons d (uint_of r) end.

Definition isdigit (d : Z) : Prop := 0 <= d < 10.

Lemma digit_cases : forall d, isdigit d ->
  d = 0 \/ d = 1 \/ d = 2 \/ d = 3 \/ d = 4 \/ d = 5 \/ d = 6 \/ d = 7 \/ d = 8 \/ d = 9.
Proof. unfold isdigit. intros. lia. Qed.

Ltac digit_split H :=
  apply digit_cases in H;
  destruct H as [H|[H|[H|[H|[H|[H|[H|[H|[H|H]]]]]]]]]; subst.

Lemma horner_cons : forall d l acc, horner (d :: l) acc = horner l (10 * acc + d).
Proof. reflexivity. Qed.

Lemma of_uint_acc_horner : forall l acc, Forall isdigit l ->
  Z.pos (Pos.of_uint_acc (uint_of l) acc) = horner l (Z.pos acc).
Proof.
  induction l as [|d l IH]; intros acc H; [reflexivity|].
  inversion H as [|? ? Hd Hl]; subst.
  rewrite horner_cons.
  digit_split Hd; cbn [uint_of dcons Pos.of_uint_acc]; rewrite IH by assumption; f_equal; lia.
Qed.

Lemma of_uint_horner : forall l, Forall isdigit l ->
  Z.of_N (Pos.of_uint (uint_of l)) = horner l 0.
Proof.
  induction l as [|d l IH]; intros H; [reflexivity|].
  inversion H as [|? ? Hd Hl]; subst.
  rewrite horner_cons.
  digit_split Hd; cbn [uint_of dcons Pos.of_uint]; [apply IH; assumption| ..];
    cbn [Z.of_N]; rewrite of_uint_acc_horner by assumption; reflexivity.
Qed.

Lemma string_of_uint_of : forall l, Forall isdigit l ->
  bytes_of_string (NilEmpty.string_of_uint (uint_of l)) = map (fun d => 48 + d) l.
Proof.
  induction l as [|d l IH]; intros H; [reflexivity|].
  inversion H as [|? ? Hd Hl]; subst.
  digit_split Hd; cbn [uint_of dcons NilEmpty.string_of_uint bytes_of_string map]; rewrite IH by assumption; reflexivity.
Qed.

Lemma nilzero_uint_of : forall d l, isdigit d ->
  NilZero.string_of_uint (uint_of (d :: l)) = NilEmpty.string_of_uint (uint_of (d :: l)).
Proof. intros d l Hd. digit_split Hd; reflexivity. Qed.

Lemma unorm_uint_of : forall d l, 0 < d < 10 -> unorm (uint_of (d :: l)) = uint_of (d :: l).
Proof. intros d l Hd. assert (H : isdigit d) by (unfold isdigit; lia). digit_split H; try lia; reflexivity. Qed.

Lemma norm_neg_uint_of : forall d l, 0 < d < 10 -> norm (Neg (uint_of (d :: l))) = Neg (uint_of (d :: l)).
Proof. intros d l Hd. assert (H : isdigit d) by (unfold isdigit; lia). digit_split H; try lia; reflexivity. Qed.

Definition sign_bytes (v : Z) : list Z := if v <? 0 then [45] else [].
Definition digit_bytes (f : nat) (m : Z) : list Z := map (fun d => 48 + d) (digs f m).

(* Coq's decimal string of v is: optional '-', then the digits of |v| *)
Lemma decimal_digs : forall f v, Z.abs v < 10 ^ Z.of_nat (S f) ->
  decimal v = sign_bytes v ++ digit_bytes (S f) (Z.abs v).
Proof.
  intros f v Hv. unfold decimal, sign_bytes, digit_bytes.
  destruct (Z.eq_dec v 0) as [->|Hnz]; [reflexivity|].
  assert (Hm : 0 < Z.abs v < 10 ^ Z.of_nat (S f)) by lia.
  destruct (digs_head _ _ Hm) as (d & r & Hd & Hr).
  pose proof (digs_range (S f) (Z.abs v)) as Hrange.
  pose proof (digs_horner (S f) (Z.abs v) ltac:(lia)) as Hh.
  rewrite Hd in *.
  assert (Hof : Z.of_N (Pos.of_uint (uint_of (d :: r))) = Z.abs v) by (rewrite of_uint_horner by exact Hrange; exact Hh).
  assert (Hd0 : isdigit d) by (inversion Hrange; assumption).
  destruct (Z.ltb_spec v 0) as [Hneg|Hpos].
  - assert (Hto : Z.to_int v = Neg (uint_of (d :: r))).
    { rewrite <- (norm_neg_uint_of d r Hr), <- DecimalZ.to_of. f_equal. unfold Z.of_int, Z.of_uint. lia. }
    rewrite Hto. unfold NilZero.string_of_int. rewrite nilzero_uint_of by exact Hd0.
    cbn [bytes_of_string]. rewrite string_of_uint_of by exact Hrange. reflexivity.
  - assert (Hto : Z.to_int v = Pos (uint_of (d :: r))).
    { rewrite <- (unorm_uint_of d r Hr) at 1. change (Pos (unorm (uint_of (d :: r)))) with (norm (Pos (uint_of (d :: r)))).
      rewrite <- DecimalZ.to_of. f_equal. unfold Z.of_int, Z.of_uint. lia. }
    rewrite Hto. unfold NilZero.string_of_int. rewrite nilzero_uint_of by exact Hd0.
    rewrite string_of_uint_of by exact Hrange. reflexivity.
Qed.

(* the digit loop of io.c *)
Lemma char_digit : forall m, 0 <= m < 2 ^ 64 ->
  char_of (u64 (48 + u64 (m - u64 (m / 10 * 10)))) = 48 + m mod 10.
Proof.
  intros m Hm. unfold char_of, u64.
  pose proof (Z.div_mod m 10 ltac:(lia)) as Hdm.
  pose proof (Z.mod_pos_bound m 10 ltac:(lia)) as Hmod.
  assert (H2 : 2 ^ 64 = 18446744073709551616) by reflexivity.
  rewrite (Z.mod_small (m / 10 * 10)) by lia.
  replace (m - m / 10 * 10) with (m mod 10) by lia.
  rewrite (Z.mod_small (m mod 10)) by lia.
  rewrite (Z.mod_small (48 + m mod 10)) by lia.
  apply Z.mod_small. lia.
Qed.

Lemma digit_loop_S : forall f m b start,
  digit_loop (S f) m b start =
  let b1 := store b (start - 1) (char_of (u64 (48 + u64 (m - u64 (m / 10 * 10))))) in
  if m / 10 =? 0 then Some (b1, start - 1) else digit_loop f (m / 10) b1 (start - 1).
Proof. reflexivity. Qed.

Lemma digs_S : forall f m,
  digs (S f) m = if m / 10 =? 0 then [m mod 10] else digs f (m / 10) ++ [m mod 10].
Proof. reflexivity. Qed.

Lemma store_at b pre post c s : data b = pre ++ post -> List.length pre = s -> (1 <= s)%nat ->
  store b (Z.of_nat s - 1) c = {| data := firstn (s - 1) pre ++ c :: post; oob := oob b |}.
Proof.
  intros D Lp Hs. unfold store. replace (Z.of_nat s - 1) with (Z.of_nat (s - 1)) by lia.
  assert (Ld : List.length (data b) = (s + List.length post)%nat) by (rewrite D, app_length, Lp; reflexivity).
  destruct (Z.leb_spec 0 (Z.of_nat (s - 1))); [|lia].
  destruct (Z.ltb_spec (Z.of_nat (s - 1)) (Z.of_nat (List.length (data b)))); [|lia].
  cbn [andb]. rewrite Nat2Z.id, upd_spec by lia. replace (S (s - 1)) with s by lia.
  rewrite D, firstn_app, skipn_app, Lp. replace (s - 1 - s)%nat with 0%nat by lia. rewrite Nat.sub_diag.
  cbn [firstn skipn]. rewrite app_nil_r, (skipn_all2 pre) by lia. reflexivity.
Qed.

Lemma digit_loop_at : forall f m b pre post s,
  0 <= m < 10 ^ Z.of_nat (S f) -> m < 2 ^ 64 ->
  data b = pre ++ post -> List.length pre = s -> (List.length (digs (S f) m) <= s)%nat ->
  exists b',
    digit_loop (S f) m b (Z.of_nat s) = Some (b', Z.of_nat (s - List.length (digs (S f) m))) /\
    oob b' = oob b /\
    data b' = firstn (s - List.length (digs (S f) m)) pre ++ digit_bytes (S f) m ++ post.
Proof.
  induction f as [|f IH]; intros m b pre post s Hm H64 D Lp Hs;
    (* in the base case no f is bound, the first alternative fails and the second applies *)
    (pose proof (digs_length_pos (S f) m) as Hk1 || pose proof (digs_length_pos 0 m) as Hk1);
    rewrite digit_loop_S; cbv zeta; rewrite char_digit by lia; rewrite (store_at b pre post _ s D Lp) by lia;
    unfold digit_bytes; rewrite digs_S in *; replace (Z.of_nat s - 1) with (Z.of_nat (s - 1)) by lia.
  - (* one digit *)
    change (10 ^ Z.of_nat 1) with 10 in Hm.
    rewrite (Z.div_small m 10) in * by lia. cbn [Z.eqb List.length] in *.
    eexists. split; [|split]; reflexivity.
  - destruct (m / 10 =? 0) eqn:E.
    + cbn [List.length] in *. eexists. split; [|split]; reflexivity.
    + apply Z.eqb_neq in E. rewrite app_length in *. cbn [List.length] in *.
      rewrite pow10_S in Hm.
      assert (Hm' : 0 <= m / 10 < 10 ^ Z.of_nat (S f)).
      { split; [apply Z.div_pos; lia|]. apply Z.div_lt_upper_bound; lia. }
      assert (H64' : m / 10 < 2 ^ 64) by (apply Z.div_lt_upper_bound; lia).
      destruct (IH (m / 10) {| data := firstn (s - 1) pre ++ (48 + m mod 10) :: post; oob := oob b |}
                   (firstn (s - 1) pre) ((48 + m mod 10) :: post) (s - 1)%nat Hm' H64' eq_refl
                   ltac:(apply firstn_length_le; lia) ltac:(lia)) as (b' & Hrun & Hoob & Hdata).
      set (k' := List.length (digs (S f) (m / 10))) in *.
      exists b'. split; [|split].
      * rewrite Hrun. f_equal. f_equal. lia.
      * exact Hoob.
      * rewrite Hdata, firstn_firstn. replace (Nat.min (s - 1 - k') (s - 1)) with (s - (k' + 1))%nat by lia.
        rewrite map_app. cbn [map app]. rewrite <- !app_assoc. reflexivity.
Qed.

(* MAX_DIGITS_INT is io.c's buffer length (Generated/Constants.v); a 64-bit magnitude has at most 20 digits, that of an
   int64 at most 19 *)
Lemma max_digits_ok : 20 <= MAX_DIGITS_INT.
Proof. unfold MAX_DIGITS_INT. lia. Qed.

Lemma pow_facts :
  2 ^ 63 = 9223372036854775808 /\ 2 ^ 64 = 18446744073709551616 /\
  10 ^ Z.of_nat 19 = 10000000000000000000 /\ 10 ^ Z.of_nat 20 = 100000000000000000000.
Proof. repeat split; reflexivity. Qed.

(* the unsigned magnitude computed by io.c is |v|, for every int64 including the minimum *)
Lemma magnitude_abs : forall v, in_i64 v ->
  (if v <? 0 then u64 (0 - u64 v) else u64 v) = Z.abs v.
Proof.
  unfold in_i64, u64. intros v Hv. destruct pow_facts as (H63 & H64 & _).
  destruct (Z.ltb_spec v 0).
  - rewrite <- (Z.mod_unique v (2 ^ 64) (-1) (v + 2 ^ 64)) by lia.
    symmetry. apply Z.mod_unique with (q := -1); lia.
  - rewrite Z.mod_small by lia. lia.
Qed.

Lemma digits_u64 : forall m, 0 <= m < 2 ^ 64 -> (List.length (digs 20 m) <= 20)%nat.
Proof. intros m Hm. destruct pow_facts as (_ & H64 & _ & H20). apply digs_length_le. lia. Qed.

Lemma digits_i64 : forall v, in_i64 v -> (List.length (digs 20 (Z.abs v)) <= 19)%nat.
Proof. unfold in_i64. intros v Hv. destruct pow_facts as (H63 & _ & H19 & _). apply digs_length_le. lia. Qed.

Lemma write_slice : forall b pre mid post a c,
  data b = pre ++ mid ++ post -> List.length pre = a -> Z.to_nat c = List.length mid ->
  write_bytes b (Z.of_nat a) c = mid.
Proof.
  intros b pre mid post a c Hd Ha Hc. unfold write_bytes. rewrite Hd, Nat2Z.id, Hc.
  rewrite skipn_app, skipn_all2 by lia. replace (a - List.length pre)%nat with 0%nat by lia.
  cbn [skipn]. rewrite app_nil_l, firstn_app, firstn_all, Nat.sub_diag. cbn [firstn]. apply app_nil_r.
Qed.

Definition line_tail (line : bool) : list Z := if line then [10] else [].

Lemma print_gen_spec : forall line init v,
  in_i64 v -> List.length init = Z.to_nat (buf_size line) ->
  let r := print_gen line init v in
  bytes r = decimal v ++ line_tail line /\
  overrun r = false /\ fuel_ok r = true /\
  final_start r = MAX_DIGITS_INT - Z.of_nat (List.length (decimal v)) /\
  0 <= final_start r.
Proof.
  intros line init v Hv Hinit.
  pose proof max_digits_ok as HM.
  destruct pow_facts as (H63 & H64 & H19 & H20).
  unfold print_gen, buf_size in *. cbv zeta.
  set (N := Z.to_nat MAX_DIGITS_INT).
  assert (HN : MAX_DIGITS_INT = Z.of_nat N) by (unfold N; lia).
  assert (HN20 : (20 <= N)%nat) by lia.
  rewrite HN in Hinit |- *. clearbody N. clear HN HM.
  rewrite magnitude_abs by assumption.
  (* the buffer before the loop *)
  set (b := if line then store {| data := init; oob := false |} (Z.of_nat N) 10 else {| data := init; oob := false |}).
  assert (Hb : exists pre, data b = pre ++ line_tail line /\ List.length pre = N /\ oob b = false).
  { unfold b. destruct line.
    - replace (Z.of_nat N) with (Z.of_nat (N + 1) - 1) by lia.
      rewrite (store_at _ init [] 10 (N + 1)%nat) by first [symmetry; apply app_nil_r | lia]. cbn [data oob].
      exists (firstn (N + 1 - 1) init). split; [reflexivity|]. split; [rewrite firstn_length_le; lia|reflexivity].
    - exists init. cbn [data oob line_tail]. rewrite app_nil_r. split; [reflexivity|]. split; [lia|reflexivity]. }
  destruct Hb as (pre & Hdata & Hpre & Hoob). clearbody b.
  assert (Hlt : List.length (line_tail line) = Z.to_nat (if line then 1 else 0)) by (destruct line; reflexivity).
  (* the loop *)
  pose proof (digits_i64 v Hv) as Hk19.
  pose proof (digs_length_pos 19 (Z.abs v)) as Hk1.
  unfold in_i64 in Hv.
  (* 19 = print_fuel - 1: digit_loop_at speaks of fuel S f *)
  destruct (digit_loop_at 19 (Z.abs v) b pre (line_tail line) N ltac:(lia) ltac:(lia) Hdata Hpre ltac:(lia))
    as (b' & Hrun & Hoob' & Hdata').
  unfold print_fuel. rewrite Hrun.
  set (k := List.length (digs 20 (Z.abs v))) in *.
  assert (Hpre' : List.length (firstn (N - k) pre) = (N - k)%nat) by (apply firstn_length_le; lia).
  assert (Hdl : List.length (digit_bytes 20 (Z.abs v)) = k) by (unfold digit_bytes; rewrite map_length; reflexivity).
  rewrite (decimal_digs 19 v) by lia. unfold sign_bytes.
  destruct (Z.ltb_spec v 0) as [Hneg|Hpos].
  - (* negative: one more byte for the sign *)
    rewrite (store_at b' _ _ 45 (N - k)%nat Hdata' Hpre') by lia.
    replace (Z.of_nat (N - k) - 1) with (Z.of_nat (N - k - 1)) by lia.
    cbn [oob bytes overrun fuel_ok final_start].
    split; [|split; [congruence|split; [reflexivity|split]]].
    + apply (write_slice _ (firstn (N - k - 1) (firstn (N - k) pre)) _ []).
      * cbn [data app]. rewrite app_nil_r. reflexivity.
      * apply firstn_length_le. lia.
      * rewrite !app_length, Hdl, Hlt. cbn [List.length]. destruct line; lia.
    + rewrite app_length, Hdl. cbn [List.length]. lia.
    + lia.
  - cbn [oob bytes overrun fuel_ok final_start app].
    split; [|split; [congruence|split; [reflexivity|split]]].
    + apply (write_slice _ (firstn (N - k) pre) _ []).
      * rewrite app_nil_r. exact Hdata'.
      * exact Hpre'.
      * rewrite app_nil_l, app_length, Hdl, Hlt. destruct line; lia.
    + rewrite app_nil_l, Hdl. lia.
    + lia.
Qed.

Lemma digit_loop_terminates : forall f m b start,
  0 <= m < 10 ^ Z.of_nat (S f) -> digit_loop (S f) m b start <> None.
Proof.
  induction f as [|f IH]; intros m b start Hm; rewrite digit_loop_S; cbv zeta.
  - change (10 ^ Z.of_nat 1) with 10 in Hm.
    rewrite (Z.div_small m 10) by lia. cbn [Z.eqb]. discriminate.
  - destruct (m / 10 =? 0); [discriminate|]. apply IH. rewrite pow10_S in Hm.
    split; [apply Z.div_pos; lia|]. apply Z.div_lt_upper_bound; lia.
Qed.

Lemma print_fuel_suffices : forall m b start, 0 <= m < 2 ^ 64 -> digit_loop print_fuel m b start <> None.
Proof.
  intros m b start Hm. destruct pow_facts as (_ & H64 & _ & H20).
  apply digit_loop_terminates. lia.
Qed.

Lemma zero_buf_length : forall line, List.length (zero_buf line) = Z.to_nat (buf_size line).
Proof. intros. unfold zero_buf. apply repeat_length. Qed.

Lemma print_i64_digits_gen : forall init v, in_i64 v -> List.length init = Z.to_nat (buf_size false) ->
  bytes (print_gen false init v) = decimal v.
Proof.
  intros init v Hv Hi. destruct (print_gen_spec false init v Hv Hi) as (H & _).
  rewrite H. apply app_nil_r.
Qed.

Lemma println_i64_digits_gen : forall init v, in_i64 v -> List.length init = Z.to_nat (buf_size true) ->
  bytes (print_gen true init v) = decimal v ++ [10].
Proof. intros init v Hv Hi. destruct (print_gen_spec true init v Hv Hi) as (H & _). exact H. Qed.

Lemma print_i64_digits : forall v, - 2 ^ 63 <= v < 2 ^ 63 -> bytes (print_i64 v) = decimal v.
Proof. intros v Hv. apply print_i64_digits_gen; [exact Hv|apply zero_buf_length]. Qed.

Lemma println_i64_digits : forall v, - 2 ^ 63 <= v < 2 ^ 63 -> bytes (println_i64 v) = decimal v ++ [10].
Proof. intros v Hv. apply println_i64_digits_gen; [exact Hv|apply zero_buf_length]. Qed.

Lemma print_never_overruns : forall line init v,
  - 2 ^ 63 <= v < 2 ^ 63 -> List.length init = Z.to_nat (buf_size line) ->
  let r := print_gen line init v in
  overrun r = false /\ fuel_ok r = true /\ 0 <= final_start r /\
  Z.of_nat (List.length (bytes r)) = buf_size line - final_start r.
Proof.
  intros line init v Hv Hi. destruct (print_gen_spec line init v Hv Hi) as (Hb & Ho & Hf & Hs & H0).
  cbv zeta. repeat split; try assumption.
  rewrite Hb, Hs, app_length. unfold buf_size. destruct line; cbn [line_tail List.length]; lia.
Qed.

Lemma string_bytes_roundtrip : forall s, string_of_bytes (bytes_of_string s) = s.
Proof.
  induction s as [|a s IH]; [reflexivity|]. cbn [bytes_of_string string_of_bytes]. rewrite IH. f_equal.
  unfold ascii_of_byte, byte_of_ascii. rewrite N2Z.id. apply ascii_N_embedding.
Qed.

Lemma decimal_parses_back : forall v,
  NilZero.int_of_string (string_of_bytes (decimal v)) = Some (Z.to_int v) /\ Z.of_int (Z.to_int v) = v.
Proof.
  intros v. unfold decimal. rewrite string_bytes_roundtrip. split; [|apply DecimalZ.of_to].
  apply NilZero.isi; destruct v; cbn [Z.to_int]; try discriminate;
    intro H; injection H as H; revert H; apply DecimalPos.Unsigned.to_uint_nonnil.
Qed.

Lemma atoll_digits_horner : forall l acc, Forall isdigit l ->
  atoll_digits (map (fun d => 48 + d) l) acc = horner l acc.
Proof.
  induction l as [|d l IH]; intros acc H; [reflexivity|].
  inversion H as [|? ? Hd Hl]; subst. cbn [map atoll_digits]. rewrite horner_cons.
  unfold isdigit in Hd.
  destruct (Z.leb_spec 48 (48 + d)); [|lia]. destruct (Z.leb_spec (48 + d) 57); [|lia]. cbn [andb].
  rewrite IH by assumption. f_equal. lia.
Qed.

Lemma atoll_unsigned_form : forall d r, isdigit d ->
  atoll ((48 + d) :: r) = clamp_i64 (atoll_digits ((48 + d) :: r) 0).
Proof. intros d r Hd. digit_split Hd; reflexivity. Qed.

Lemma atoll_decimal : forall v, - 2 ^ 63 <= v < 2 ^ 63 -> atoll (decimal v) = v.
Proof.
  intros v Hv. destruct pow_facts as (H63 & H64 & H19 & H20).
  rewrite (decimal_digs 19 v) by lia.
  pose proof (digs_range 20 (Z.abs v)) as Hr.
  pose proof (digs_horner 20 (Z.abs v) ltac:(lia)) as Hh.
  unfold sign_bytes, digit_bytes.
  destruct (Z.ltb_spec v 0) as [Hneg|Hpos].
  - change (atoll ([45] ++ map (fun d => 48 + d) (digs 20 (Z.abs v))))
      with (clamp_i64 (- atoll_digits (map (fun d => 48 + d) (digs 20 (Z.abs v))) 0)).
    rewrite atoll_digits_horner, Hh by assumption. unfold clamp_i64. lia.
  - rewrite app_nil_l.
    pose proof (digs_length_pos 19 (Z.abs v)) as Hl.
    destruct (digs 20 (Z.abs v)) as [|d r] eqn:E; [simpl in Hl; lia|].
    inversion Hr; subst. cbn [map]. rewrite atoll_unsigned_form by assumption.
    change ((48 + d) :: map (fun d => 48 + d) r) with (map (fun d => 48 + d) (d :: r)).
    rewrite atoll_digits_horner, Hh by assumption. unfold clamp_i64. lia.
Qed.

Lemma i32_low8 : forall x, i32_of_bits x mod 256 = x mod 256.
Proof.
  intros x. unfold i32_of_bits.
  assert (H31 : 2 ^ 31 = 2147483648) by reflexivity. assert (H32 : 2 ^ 32 = 4294967296) by reflexivity.
  rewrite H31, H32.
  pose proof (Z.div_mod (x + 2147483648) 4294967296 ltac:(lia)) as Hdm.
  (* what the conversion to 32 bits subtracts is a multiple of 2^32 = 16777216 * 256 *)
  replace ((x + 2147483648) mod 4294967296 - 2147483648)
    with (x + (- 16777216 * ((x + 2147483648) / 4294967296)) * 256) by lia.
  apply Z_mod_plus_full.
Qed.

Lemma argc_ok : forall n (argv : list (list Z)), List.length argv = S n ->
  negb (Z.of_nat (List.length argv) =? 1 + Z.of_nat n) = false.
Proof. intros n argv H. rewrite H. destruct (Z.eqb_spec (Z.of_nat (S n)) (1 + Z.of_nat n)); [reflexivity|lia]. Qed.

Lemma exit_status_low8 : forall n asm_main argv out rax,
  List.length argv = S n ->
  asm_main (map atoll (firstn n (tl argv))) = (out, rax) ->
  let r := driver n asm_main argv in
  d_status r = rax mod 256 /\ d_main_returns r = i32_of_bits rax /\ d_output r = out /\ 0 <= d_status r < 256.
Proof.
  intros n asm_main argv out rax Hlen Hcall. unfold driver. rewrite argc_ok by assumption.
  rewrite Hcall. cbn [d_status d_main_returns d_output]. rewrite i32_low8.
  repeat split; try reflexivity; apply Z.mod_pos_bound; lia.
Qed.

Lemma wrong_argc_reports : forall n asm_main argv,
  List.length argv <> S n ->
  let r := driver n asm_main argv in
  d_output r = error_arguments /\ d_calls r = [] /\ d_status r = 1.
Proof.
  intros n asm_main argv Hlen. unfold driver.
  destruct (Z.eqb_spec (Z.of_nat (List.length argv)) (1 + Z.of_nat n)) as [E|E]; [lia|].
  cbn [negb d_output d_calls d_status]. repeat split.
Qed.

Lemma arguments_reach_main : forall n asm_main prog vs,
  List.length vs = n -> Forall in_i64 vs ->
  d_calls (driver n asm_main (prog :: map decimal vs)) = [vs].
Proof.
  intros n asm_main prog vs Hlen Hvs. unfold driver.
  rewrite argc_ok by (cbn [List.length]; rewrite map_length; lia).
  cbn [tl]. replace n with (List.length (map decimal vs)) by (rewrite map_length; assumption).
  rewrite firstn_all.
  destruct (asm_main (map atoll (map decimal vs))) as [out rax]. cbn [d_calls]. f_equal.
  rewrite map_map. clear Hlen. induction Hvs as [|v vs Hv Hvs IH]; [reflexivity|].
  cbn [map]. rewrite IH. f_equal. apply atoll_decimal. exact Hv.
Qed.

Fixpoint seq_nat (k : nat) : list nat := match k with O => [] | S j => seq_nat j ++ [j] end.

(* the transliterated functions produce exactly the instruction lists of the compiled crates *)
Lemma x86_move_arguments_is_code :
  map x86_move_arguments (seq_nat 6) = map Some X86RT.move_arguments /\
  x86_move_arguments 6 = None /\ X86RT.max_main_args = 5 /\
  X86RT.nargs_passed_through = [0; 1; 2; 3; 4; 5].
Proof. repeat split; reflexivity. Qed.

Lemma a64_move_arguments_is_code :
  map a64_move_arguments (seq_nat 8) = map Some A64RT.move_arguments /\
  a64_move_arguments 8 = None /\ A64RT.max_main_args = 7 /\
  A64RT.nargs_passed_through = [0; 1; 2; 3; 4; 5; 6; 7].
Proof. repeat split; reflexivity. Qed.

(* registers: the integer half of environment position i, and the calling conventions *)
Lemma param_regs_are_code :
  map x86_param_reg (seq_nat 6) = X86RT.param_int_regs /\
  map a64_param_reg (seq_nat 8) = A64RT.param_int_regs.
Proof. split; reflexivity. Qed.

Lemma arg_regs_follow_abi :
  map (fun r => nth (Z.to_nat r) X86RT.reg_names ""%string) X86C.arg_regs = sysv_arg_names /\
  map (fun r => nth r A64RT.reg_names ""%string) (seq_nat 8) = aapcs64_arg_names /\
  A64C.HEAP = 0.
Proof. repeat split; reflexivity. Qed.

(* the cases of a number below a numeral; the bound is decided by computation in the impossible ones *)
Ltac small_nat i H :=
  first [apply Nat.leb_le in H | apply Nat.ltb_lt in H];
  destruct i as [|[|[|[|[|[|[|[|i]]]]]]]]; try discriminate H.

Lemma move_arguments_x86_ok : forall n moves, (n <= 5)%nat ->
  nth_error X86RT.move_arguments n = Some moves ->
  forall (rf : regfile) i, (i < n)%nat ->
    exec_moves moves rf (x86_param_reg i) = rf (x86_arg (S i)).
Proof.
  intros n moves Hn Hm rf i Hi.
  small_nat n Hn; cbn in Hm; injection Hm as <-; small_nat i Hi; reflexivity.
Qed.

Lemma move_arguments_a64_ok : forall n moves, (n <= 7)%nat ->
  nth_error A64RT.move_arguments n = Some moves ->
  forall (rf : regfile) i, (i < n)%nat ->
    exec_moves moves rf (a64_param_reg i) = rf (Z.of_nat (S i)).
Proof.
  intros n moves Hn Hm rf i Hi.
  small_nat n Hn; cbn in Hm; injection Hm as <-; small_nat i Hi; reflexivity.
Qed.

(* the same for the transliterated functions *)
Lemma move_arguments_x86_model_ok : forall n moves, x86_move_arguments n = Some moves ->
  forall (rf : regfile) i, (i < n)%nat -> exec_moves moves rf (x86_param_reg i) = rf (x86_arg (S i)).
Proof.
  intros n moves Hm rf i Hi.
  assert (Hn : (n <= 5)%nat).
  { destruct n as [|[|[|[|[|[|n]]]]]]; try lia. exfalso.
    cbn [x86_move_arguments] in Hm. discriminate Hm. }
  small_nat n Hn; cbn in Hm; injection Hm as <-; small_nat i Hi; reflexivity.
Qed.

(* the whole prologue, every instruction between the entry label and the program's code:
   parameters arrive, and so does the heap pointer, whatever the other instructions write *)
Lemma setup_x86_ok : forall n effects, (n <= 5)%nat ->
  nth_error X86RT.setup_effects n = Some effects ->
  forall (rf : regfile) (havoc : nat -> Z),
    let rf' := exec_effects effects havoc 0 rf in
    (forall i, (i < n)%nat -> rf' (x86_param_reg i) = rf (x86_arg (S i))) /\
    rf' X86C.HEAP = rf (x86_arg 0).
Proof.
  intros n effects Hn Hm rf havoc.
  small_nat n Hn; cbn in Hm; injection Hm as <-; (split; [intros i Hi; small_nat i Hi; reflexivity|reflexivity]).
Qed.

Lemma setup_a64_ok : forall n effects, (n <= 7)%nat ->
  nth_error A64RT.setup_effects n = Some effects ->
  forall (rf : regfile) (havoc : nat -> Z),
    let rf' := exec_effects effects havoc 0 rf in
    (forall i, (i < n)%nat -> rf' (a64_param_reg i) = rf (Z.of_nat (S i))) /\
    rf' A64C.HEAP = rf 0.
Proof.
  intros n effects Hn Hm rf havoc.
  small_nat n Hn; cbn in Hm; injection Hm as <-; (split; [intros i Hi; small_nat i Hi; reflexivity|reflexivity]).
Qed.

(* what the calling convention promises at the entry of asm_main(heap, a1, .., an) (trusted, not proved) *)
Definition entry_regs (argreg : nat -> Z) (heap : Z) (args : list Z) (rf : regfile) : Prop :=
  rf (argreg O) = heap /\ forall i, (i < List.length args)%nat -> rf (argreg (S i)) = nth i args 0.

Lemma arguments_end_to_end (argreg param_reg : nat -> Z) (heapreg : Z) n vs asm_main prog heap (rf rf' : regfile) :
  List.length vs = n -> Forall in_i64 vs ->
  (forall args, In args (d_calls (driver n asm_main (prog :: map decimal vs))) -> entry_regs argreg heap args rf) ->
  (forall i, (i < n)%nat -> rf' (param_reg i) = rf (argreg (S i))) /\ rf' heapreg = rf (argreg O) ->
  (forall i, (i < n)%nat -> rf' (param_reg i) = nth i vs 0) /\ rf' heapreg = heap.
Proof.
  intros Hlen Hvs Hentry (Hp & Hh).
  rewrite (arguments_reach_main n asm_main prog vs Hlen Hvs) in Hentry.
  destruct (Hentry vs (or_introl eq_refl)) as (Hheap & Hargs).
  split.
  - intros i Hi. rewrite (Hp i Hi). apply Hargs. lia.
  - rewrite Hh. exact Hheap.
Qed.

Lemma x86_arguments_end_to_end : forall n vs asm_main prog effects heap (rf : regfile) havoc,
  (n <= 5)%nat -> List.length vs = n -> Forall in_i64 vs ->
  nth_error X86RT.setup_effects n = Some effects ->
  (forall args, In args (d_calls (driver n asm_main (prog :: map decimal vs))) -> entry_regs x86_arg heap args rf) ->
  let rf' := exec_effects effects havoc 0 rf in
  (forall i, (i < n)%nat -> rf' (x86_param_reg i) = nth i vs 0) /\ rf' X86C.HEAP = heap.
Proof.
  intros n vs asm_main prog effects heap rf havoc Hn Hlen Hvs Heff Hentry.
  exact (arguments_end_to_end x86_arg x86_param_reg X86C.HEAP n vs asm_main prog heap rf _ Hlen Hvs Hentry
           (setup_x86_ok n effects Hn Heff rf havoc)).
Qed.

Lemma a64_arguments_end_to_end : forall n vs asm_main prog effects heap (rf : regfile) havoc,
  (n <= 7)%nat -> List.length vs = n -> Forall in_i64 vs ->
  nth_error A64RT.setup_effects n = Some effects ->
  (forall args, In args (d_calls (driver n asm_main (prog :: map decimal vs))) -> entry_regs Z.of_nat heap args rf) ->
  let rf' := exec_effects effects havoc 0 rf in
  (forall i, (i < n)%nat -> rf' (a64_param_reg i) = nth i vs 0) /\ rf' A64C.HEAP = heap.
Proof.
  intros n vs asm_main prog effects heap rf havoc Hn Hlen Hvs Heff Hentry.
  exact (arguments_end_to_end Z.of_nat a64_param_reg A64C.HEAP n vs asm_main prog heap rf _ Hlen Hvs Hentry
           (setup_a64_ok n effects Hn Heff rf havoc)).
Qed.
