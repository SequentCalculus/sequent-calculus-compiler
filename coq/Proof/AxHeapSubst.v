(* The operations of a `substitute` step of the instrumented machine (Sem/AxHeap.v `subst_ops`) as a
   list of (pointer, number of copies) actions: `Backend.transpose` of a context with distinct ids
   is a permutation of the context (each binding with the targets that name it), so the actions are a
   permutation of "every non-ext entry of the environment with the number of times it is a source",
   and the pointers of the new environment are that many copies of each. *)
From Coq Require Import List ZArith NArith String Bool Lia Permutation.
From SCC Require Import Base.Sexp Lang.AxSyn Sem.AxSem Sem.AxHeap.
From SCC Require Import Model.Heap Proof.HeapMore Proof.HeapTrace Proof.HeapRep Proof.HeapRepSubst.
From SCC Require Model.Backend.
From SCC Require Proof.SubstGraph.
Import ListNotations.
Open Scope list_scope.

Definition hids (he : henv) : list N := map (fun en => idn (h_id en)) he.
Lemma hids_ctx_of he : ids (ctx_of he) = hids he.
Proof. unfold ids, ctx_of, hids. rewrite map_map. reflexivity. Qed.
Lemma hids_erase he : env_ids (erase_env he) = hids he.
Proof. unfold env_ids, erase_env, hids. rewrite map_map. reflexivity. Qed.
Lemma NoDup_map_inv' {A B} (f : A -> B) l : NoDup (map f l) -> NoDup l.
Proof.
  induction l as [|a l IH]; cbn; intros H; constructor; inversion H; subst; auto.
  intro Hin. apply H2. now apply in_map.
Qed.
Lemma hlookup_in : forall he en, NoDup (hids he) -> In en he -> hlookup he (idn (h_id en)) = Some en.
Proof.
  induction he as [|e0 he IH]; intros en ND Hin; [destruct Hin|]. cbn [hlookup].
  inversion ND as [|? ? Hn ND']; subst. destruct Hin as [->|Hin]; [now rewrite N.eqb_refl|].
  destruct (N.eqb_spec (idn (h_id e0)) (idn (h_id en))) as [E|_]; [|auto].
  exfalso. apply Hn. rewrite E. unfold hids. apply in_map_iff. eauto.
Qed.
Lemma hlookup_Some : forall he x en, hlookup he x = Some en -> In en he /\ idn (h_id en) = x.
Proof.
  induction he as [|e0 he IH]; intros x en H; [discriminate|]. cbn [hlookup] in H.
  destruct (N.eqb_spec (idn (h_id e0)) x) as [E|_].
  - inversion H; subst. split; [now left|reflexivity].
  - destruct (IH _ _ H). split; [now right|assumption].
Qed.

Definition cnt_tg (re : list (binding * ident)) (en : hentry) : nat :=
  List.length (filter (fun p : binding * ident => N.eqb (idn (h_id en)) (idn (snd p))) re).
Definition act_of (re : list (binding * ident)) (en : hentry) : list (Z * nat) :=
  match chi_of (h_val en) with AxSyn.Ext => [] | _ => [(h_ptr en, cnt_tg re en)] end.
Definition actf (he : henv) (bt : binding * list N) : list (Z * nat) :=
  match bchi (fst bt) with AxSyn.Ext => [] | _ => [(ptr_of he (idn (bvar (fst bt))), List.length (snd bt))] end.

Lemma rc_op_act k p n : rc_op k p n = match k with AxSyn.Ext => [] | _ => act_ops (p, n) end.
Proof. destruct k; reflexivity. Qed.

Lemma subst_ops_acts he re :
  subst_ops he re = flat_map act_ops (flat_map (actf he) (Backend.transpose re (ctx_of he))).
Proof.
  unfold subst_ops. induction (Backend.transpose re (ctx_of he)) as [|bt l IH]; cbn [flat_map]; auto.
  rewrite flat_map_app, IH. f_equal. rewrite rc_op_act. unfold actf. destruct (bchi (fst bt)); cbn [flat_map]; now rewrite ?app_nil_r.
Qed.

Lemma acts_perm he re :
  NoDup (hids he) ->
  Permutation (flat_map (actf he) (Backend.transpose re (ctx_of he))) (flat_map (act_of re) he).
Proof.
  intros ND.
  assert (NDc : NoDup (ctx_of he)).
  { apply (NoDup_map_inv' (fun b => idn (bvar b))). fold (ids (ctx_of he)). now rewrite hids_ctx_of. }
  etransitivity; [apply Permutation_flat_map, SubstGraph.transpose_perm; exact NDc|].
  unfold ctx_of. rewrite map_map, flat_map_concat_map, map_map, <- flat_map_concat_map.
  rewrite (flat_map_ext_in (fun en => actf he (binding_of en, SubstGraph.targets re (binding_of en))) (act_of re)); [reflexivity|].
  intros en Hin. unfold actf, act_of. cbn [fst snd binding_of bchi bvar].
  unfold ptr_of. rewrite hlookup_in by auto. unfold SubstGraph.targets, cnt_tg. rewrite map_length. reflexivity.
Qed.

(* integers carry the null pointer *)
Definition ptrs_ok (he : henv) : Prop := forall en, In en he -> chi_of (h_val en) = AxSyn.Ext -> h_ptr en = 0%Z.

Lemma roots_acts he re : ptrs_ok he -> nz (map fst (flat_map (act_of re) he)) = roots he.
Proof.
  unfold roots, ptrs. induction he as [|en he IH]; intros HO; [reflexivity|]. cbn [flat_map map].
  rewrite map_app, nz_app, IH by (intros e He; apply HO; now right).
  change (h_ptr en :: map h_ptr he) with ([h_ptr en] ++ map h_ptr he). rewrite nz_app. f_equal.
  unfold act_of. destruct (chi_of (h_val en)) eqn:E; cbn [map fst]; try reflexivity.
  rewrite (HO en (or_introl eq_refl) E). reflexivity.
Qed.

Definition nzrep (p : Z) (n : nat) : list Z := if (p =? 0)%Z then [] else repeat p n.
Lemma nzrep_add p a b : nzrep p (a + b) = nzrep p a ++ nzrep p b.
Proof. unfold nzrep. destruct (p =? 0)%Z; auto. apply repeat_app. Qed.

Lemma act_roots_of he re :
  ptrs_ok he -> flat_map act_roots (flat_map (act_of re) he) = flat_map (fun en => nzrep (h_ptr en) (cnt_tg re en)) he.
Proof.
  induction he as [|en he IH]; intros HO; [reflexivity|]. cbn [flat_map]. rewrite flat_map_app, IH by (intros e He; apply HO; now right).
  f_equal. unfold act_of. destruct (chi_of (h_val en)) eqn:E; cbn [flat_map]; rewrite ?app_nil_r; try reflexivity.
  rewrite (HO en (or_introl eq_refl) E). reflexivity.
Qed.

Lemma flat_map_nil {A B} (f : A -> list B) l : (forall x, In x l -> f x = []) -> flat_map f l = [].
Proof. induction l as [|a l IH]; intros H; cbn; auto. rewrite H by now left. apply IH. intros; apply H; now right. Qed.

Lemma count_one (g : hentry -> nat) x : forall he en0,
  NoDup (hids he) -> hlookup he x = Some en0 ->
  Permutation (flat_map (fun en => nzrep (h_ptr en) ((if N.eqb (idn (h_id en)) x then 1 else 0) + g en)) he)
              (nzrep (h_ptr en0) 1 ++ flat_map (fun en => nzrep (h_ptr en) (g en)) he).
Proof.
  induction he as [|e he IH]; intros en0 ND HL; [discriminate|]. cbn [hlookup] in HL. cbn [flat_map].
  inversion ND as [|? ? Hn ND']; subst.
  destruct (N.eqb_spec (idn (h_id e)) x) as [E|E].
  - inversion HL; subst en0. rewrite nzrep_add, <- app_assoc. apply Permutation_app_head, Permutation_app_head.
    rewrite (flat_map_ext_in _ (fun en => nzrep (h_ptr en) (g en))); [reflexivity|].
    intros en Hin. destruct (N.eqb_spec (idn (h_id en)) x) as [E'|_]; auto.
    exfalso. apply Hn. rewrite E, <- E'. unfold hids. apply in_map_iff. eauto.
  - cbn [Nat.add]. etransitivity; [apply Permutation_app_head, (IH en0 ND' HL)|].
    rewrite !app_assoc. apply Permutation_app_tail. apply Permutation_app_comm.
Qed.

Lemma hsubst_roots he : NoDup (hids he) -> forall re he',
  hsubst he re = Some he' ->
  Permutation (roots he') (flat_map (fun en => nzrep (h_ptr en) (cnt_tg re en)) he).
Proof.
  intros ND. induction re as [|[nb old] re IH]; intros he' H; cbn [hsubst] in H.
  - inversion H; subst. rewrite flat_map_nil; [reflexivity|]. intros en _. unfold nzrep. cbn. now destruct (h_ptr en =? 0)%Z.
  - destruct (hlookup he (idn old)) as [en0|] eqn:HL; [|discriminate].
    destruct (hsubst he re) as [he1|]; [|discriminate]. inversion H; subst. clear H.
    specialize (IH he1 eq_refl). unfold roots, ptrs in *. cbn [map h_ptr snd].
    etransitivity; [|symmetry; etransitivity; [|apply (count_one (cnt_tg re) (idn old) he en0 ND HL)]].
    + change (nz (h_ptr en0 :: map h_ptr he1)) with (nz ([h_ptr en0] ++ map h_ptr he1)). rewrite nz_app.
      apply Permutation_app; [|exact IH]. unfold nzrep. cbn [nz filter repeat].
      destruct (h_ptr en0 =? 0)%Z; reflexivity.
    + rewrite (flat_map_ext_in _ (fun en => nzrep (h_ptr en) ((if N.eqb (idn (h_id en)) (idn old) then 1 else 0) + cnt_tg re en))); [reflexivity|].
      intros en _. unfold cnt_tg. cbn [filter snd]. destruct (N.eqb (idn (h_id en)) (idn old)); reflexivity.
Qed.

Lemma hsubst_entries he : forall re he', hsubst he re = Some he' ->
  forall en', In en' he' -> exists en, In en he /\ h_val en' = h_val en /\ h_ptr en' = h_ptr en.
Proof.
  induction re as [|[nb old] re IH]; intros he' H en' Hin; cbn [hsubst] in H.
  - inversion H; subst. destruct Hin.
  - destruct (hlookup he (idn old)) as [en0|] eqn:HL; [|discriminate].
    destruct (hsubst he re) as [he1|]; [|discriminate]. inversion H; subst. clear H.
    destruct Hin as [<-|Hin]; [|eapply IH; eauto]. exists en0. split; [apply (hlookup_Some _ _ _ HL)|auto].
Qed.
