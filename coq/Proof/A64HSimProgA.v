(* C07, forward simulation for HEAP statements on AArch64, part 7a: the invariant of the instrumented machine along a run
   (`hinv`: shared with x86-64, Proof/X86HSimProgA.v - it mentions no machine state), facts about `hrel` and a context
   that the statement lemmas share (names, the last variable, a suffix), and the entry: after the AArch64 prologue
   HEAP = X0 = heap base, FREE = X1 = one block further (`a64_entry_exit_ok` of Proof/A64Entry.v), the heap is empty, and
   `hrel` holds with the initial allocator state (`hentry_rel`). *)
From Coq Require Import List ZArith NArith String Bool Lia FMapPositive Permutation.
From SCC Require Import Base.Sexp Lang.AxSyn Sem.AxSem Sem.AxHeap Model.ParMoves Model.Backend Model.A64 Sem.A64Sem
     Model.Linearize Model.LinCheck Generated.Constants Proof.LinBasics Proof.LinTyping
     Proof.A64State Proof.A64ImmHw Proof.A64Imm Proof.A64Sel Proof.A64PM Proof.A64Exec
     Proof.A64MemSubst Proof.SubstGraph Proof.SubstBackends Proof.A64Subst Proof.A64Wf Proof.A64Print Proof.A64Entry
     Proof.A64SimRel Proof.A64SimStmt Proof.A64SimAddr Proof.A64SimClo Proof.A64SimProg Proof.A64SimTop
     Proof.HRep Proof.A64Mem Proof.A64MemOps Proof.A64HSimRel Proof.A64HSimStmt Proof.A64HConv Proof.A64HSimStore.
From SCC Require Model.Heap Proof.HeapMore Proof.HeapTrace Proof.HeapRep Proof.AxHeapTyping Proof.AxHeapSafe Proof.AxHeapSubst
     Proof.X86HeapDefs Proof.X86HeapCongr Proof.X86HFrame Proof.X86HSimProgA Proof.X86HSimProg.
Import ListNotations.
Open Scope Z_scope.
Open Scope list_scope.

Notation hinv := X86HSimProgA.hinv.
Notation hinv_step := X86HSimProgA.hinv_step.
Notation hinv_invA := X86HSimProgA.hinv_invA.
Notation hinv_fit0 := X86HSimProgA.hinv_fit0.
Notation hinv_ptrs_ok := X86HSimProgA.hinv_ptrs_ok.
Notation hinv_regs_nz := X86HSimProgA.hinv_regs_nz.
Notation hinv_last_rep := X86HSimProgA.hinv_last_rep.
Notation hsubst_total := X86HSimProgA.hsubst_total.
Notation hsubst_names := X86HSimProgA.hsubst_names.
Notation attach_names := X86HSimProgA.attach_names.

Section Names.
Variable types : list tydecl.
Variable CLO : Z -> ident -> list clause -> ctx -> Prop.
Local Notation hrel := (hrel types CLO).

Lemma hrel_ctx_of c he hs s sp : hrel c he hs s sp -> map h_id he = vars c -> ctx_of he = c.
Proof.
  intros R NM. pose proof (hrel_length R) as LEN.
  apply nth_ext with (d := mkb ("", 0%N) Ext I64) (d' := mkb ("", 0%N) Ext I64); [unfold ctx_of; now rewrite map_length|].
  intros i Hi. unfold ctx_of in Hi. rewrite map_length in Hi.
  destruct (nth_error he i) as [[[x v] q]|] eqn:He; [|apply nth_error_None in He; lia].
  destruct (hr_vals R i x v q He) as (b & Hb & V).
  unfold ctx_of. rewrite (nth_indep _ _ (binding_of (x, v, q))) by (rewrite map_length; lia).
  rewrite map_nth, (nth_error_nth _ _ _ He), (nth_error_nth _ _ _ Hb).
  assert (EX : x = bvar b).
  { assert (H1 : nth_error (map h_id he) i = Some x) by (rewrite nth_error_map, He; reflexivity).
    rewrite NM in H1. unfold vars in H1. rewrite nth_error_map, Hb in H1. cbn in H1. congruence. }
  assert (EK : chi_of v = bchi b /\ ty_of v = bty b).
  { destruct V as [b z q t A B T Lg I64|b v q a t1 t2 A K1 K2 T1 T2 L1 L2 X]; cbn; split; congruence. }
  unfold binding_of. cbn [h_id h_val fst snd]. destruct b as [bv bc bt]. cbn in *. destruct EK. subst. reflexivity.
Qed.

Lemma hhas_ext_lookup_int c he hs st sp a : hrel c he hs st sp -> has_ext c a = true -> exists x, lookup_int (erase_env he) a = Some x.
Proof.
  intros R H. unfold has_ext, has in H. destruct (lookup_b c (idn a)) as [b|] eqn:L; [|discriminate].
  apply lookup_b_Some in L as [Hin Hid]. apply andb_true_iff in H as [K T]. apply chi_eqb_eq in K. apply ty_eqb_eq in T.
  assert (I : In (idn a) (env_ids (erase_env he))).
  { rewrite (hr_ids R), <- Hid. now apply In_ids. }
  destruct (lookup_of_in (erase_env he) _ I) as (v & Lv). destruct (hlookup_nth he _ _ Lv) as (i & y & q & Hi & Ey).
  destruct (hr_vals R i y v q Hi) as (b' & Hb' & V).
  destruct (henv_ctx_nth c he i y v q (hr_ids R) Hi) as (b0 & Hb0 & Eb0). assert (b0 = b') by congruence. subst b0.
  apply In_nth_error in Hin as (i' & Hi').
  assert (i' = i) by (eapply (ids_nth_inj c i' i b b'); eauto using (hr_nodup R); congruence). subst i'.
  assert (b' = b) by congruence. subst b'.
  inversion V; subst; [|congruence]. exists z. unfold lookup_int, lookup_id. now rewrite Lv.
Qed.

(* the last variable of the context, if it is not an integer: the last entry of the environment, with the data word that
   represents its value *)
Lemma hrel_last c0 b he hs s sp :
  hrel (c0 ++ [b]) he hs s sp -> bchi b <> Ext ->
  exists he0 x v q a, he = he0 ++ [(x, v, q)] /\ List.length he0 = List.length c0 /\ idn x = idn (bvar b) /\
    chi_of v = bchi b /\ ty_of v = bty b /\ HRep.xrep types CLO jump_length in64 (hword s) v q a.
Proof.
  intros R NE. pose proof (hrel_length R) as LEN. rewrite app_length in LEN. cbn [List.length] in LEN.
  destruct (exists_last (l := he)) as (he0 & [[x v] q] & ->); [intros ->; cbn in LEN; lia|].
  destruct (hrel_last_entry types CLO c0 b he0 x v q hs s sp R NE) as (L0 & EX & K1 & K2 & a & _ & _ & _ & _ & _ & _ & X).
  exists he0, x, v, q, a. auto 10.
Qed.

(* the entries of the environment that belong to a suffix of the context *)
Lemma hrel_split c0 tl he hs s sp :
  hrel (c0 ++ tl) he hs s sp ->
  exists he0 fs, AxSem.split_last (List.length tl) he = Some (he0, fs) /\ he = he0 ++ fs /\
    List.length he0 = List.length c0 /\ List.length fs = List.length tl /\ env_ids (erase_env fs) = ids tl.
Proof.
  intros R. pose proof (hrel_length R) as LEN. rewrite app_length in LEN.
  destruct (X86HSimProg.hsplit_total he (List.length tl)) as (he0 & fs & SL & -> & LF); [lia|].
  rewrite app_length in LEN. assert (L0 : List.length he0 = List.length c0) by lia.
  exists he0, fs. repeat split; auto.
  pose proof (hr_ids R) as Ids. unfold env_ids, ids, erase_env in *. rewrite !map_app in Ids.
  apply app_inv_len in Ids as [_ Ids]; [exact Ids|rewrite !map_length; exact L0].
Qed.
End Names.

(* the words the prologue left above the spill area survive a heap statement *)
Lemma hframe_eq_outer st0 s s' sp : sp_ok sp -> hframe_eq s s' sp -> outer_ok st0 sp s -> outer_ok st0 sp s'.
Proof.
  intros SP (_ & K) O k Hk. rewrite K; [apply O; exact Hk|].
  intros q P E. destruct (slot_addr_facts sp q SP P) as (_ & _ & _ & _ & NN).
  assert (EK : Z.pos k - 1 = slot_addr sp q).
  { unfold key in E. subst k. rewrite Z2Pos.id by lia. lia. }
  unfold slot_addr, stack_offset in EK. change SPILL_SPACE with 2048 in *. lia.
Qed.

Lemma hprologue_ok im args su :
  setup (List.length args) = Ok su ->
  exists s, run_straight im su (init_state args) = MOk s /\
    rget s HEAP = Some HEAP_BASE /\ rget s FREE = Some (HEAP_BASE + 64) /\ heap s = PM.empty Z.
Proof.
  intros SU.
  assert (LE : (List.length args <= 7)%nat).
  { destruct (Nat.le_gt_cases (List.length args) 7) as [L|L]; [exact L|]. exfalso.
    unfold setup in SU. destruct (List.length args) as [|n]; [lia|]. cbn [move_arguments] in SU.
    destruct (Nat.ltb_spec 7 (S n)); [discriminate|lia]. }
  destruct (init_state_facts args LE) as (I1 & I2 & I3 & I4 & I5 & I6).
  destruct (a64_entry_exit_ok im (List.length args) su (init_state args) STACK_TOP HEAP_BASE SU I1) as
    (s1 & E1 & F1 & H1 & O1 & X0 & X1 & AR & K1 & EPI); [reflexivity|unfold STACK_LIMIT, STACK_TOP; lia|lia|exact I2|].
  exists s1. split; [exact E1|].
  split; [change HEAP with (X 0); cbn [rget]; exact X0|].
  split; [change FREE with (X 1); cbn [rget]; rewrite X1; reflexivity|rewrite H1; reflexivity].
Qed.

Lemma hentry_rel types CLO c0 args e0 s :
  bind (vars c0) (map VInt args) = Some e0 -> NoDup (ids c0) -> ctx_int c0 = true -> (List.length args <= 7)%nat ->
  args_i64 args = true ->
  frame_ok s sp0 -> rget s HEAP = Some HEAP_BASE -> rget s FREE = Some (HEAP_BASE + 64) -> heap s = PM.empty Z ->
  (forall i, (i < List.length args)%nat -> rget s (X (2 * N.of_nat i + 5)) = Some (nth i args 0)) ->
  hrel types CLO c0 (attach e0 []) (Heap.init HEAP_BASE) s sp0.
Proof.
  intros BD ND CI LE AI F RH RF HE RG. split.
  - exact F.
  - unfold sp0, STACK_LIMIT, STACK_TOP. lia.
  - exact RH.
  - exact RF.
  - split; [cbn [abs_heap Heap.heap Heap.init]; unfold reg_or0; now rewrite RH|]. split; [cbn [abs_heap Heap.free Heap.init]; unfold reg_or0; now rewrite RF|]. split; [reflexivity|].
    intros y _. cbn [abs_heap Heap.m Heap.init]. unfold abs_mem, hword, hget. rewrite HE, !PM.gempty. split; reflexivity.
  - rewrite attach_erase. unfold env_ids. rewrite <- (map_map fst idn), (bind_ids _ _ _ BD). unfold vars, ids. now rewrite map_map.
  - exact ND.
  - intros i x v q Hi. destruct (attach_nth _ _ _ _ _ _ Hi) as [He _].
    destruct (bind_nth _ _ _ _ _ _ BD He) as (Hx & Hv).
    rewrite nth_error_map in Hv. destruct (nth_error args i) as [a|] eqn:Ha; [|discriminate]. cbn in Hv. inversion Hv; subst v.
    unfold vars in Hx. rewrite nth_error_map in Hx. destruct (nth_error c0 i) as [b|] eqn:Hb; [|discriminate].
    assert (Li : (i < List.length args)%nat) by (apply nth_error_Some; congruence).
    destruct (ctx_int_nth c0 i b CI Hb) as (K & T).
    exists b. split; [reflexivity|].
    apply (hv_int types CLO s sp0 i b a q (AR (X (2 * N.of_nat i + 5))) K T); [apply atpos_reg; lia| |].
    + cbn [lget]. rewrite (RG i Li). f_equal. now apply nth_error_nth.
    + apply lit_i64_in64. unfold args_i64 in AI. rewrite forallb_forall in AI. apply AI. eapply nth_error_In; eauto.
Qed.
