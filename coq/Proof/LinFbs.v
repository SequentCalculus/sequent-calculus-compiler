(* `filter_by_set` (the swap_remove loop): it is a permutation of `filter keep`, so it keeps exactly
   the live bindings, once each; a kept element that is still inside the new length keeps its
   position (in particular a kept prefix stays where it is). *)
From Coq Require Import String List ZArith NArith Bool Lia Permutation.
From SCC Require Import Base.Sexp Lang.AxSyn Model.Linearize Model.LinCheck Proof.LinBasics.
Import ListNotations.
Open Scope list_scope.
Open Scope nat_scope.

Section FbsGeneric.
  Context {X : Type} (keep : X -> bool).

  Lemma unsnoc_Some : forall (l : list X) m y, unsnoc l = Some (m, y) -> l = m ++ [y].
  Proof.
    induction l as [|x l IH]; intros m y H; simpl in *; [discriminate|].
    destruct (unsnoc l) as [[m' y']|] eqn:E.
    - inversion H; subst. rewrite (IH m' y); auto.
    - inversion H; subst. destruct l; simpl in *; auto.
      destruct (unsnoc l) as [[? ?]|]; discriminate.
  Qed.
  Lemma unsnoc_None : forall (l : list X), unsnoc l = None -> l = [].
  Proof.
    destruct l as [|x l]; simpl; auto. destruct (unsnoc l) as [[? ?]|]; discriminate.
  Qed.
  Lemma unsnoc_app : forall (m : list X) y, unsnoc (m ++ [y]) = Some (m, y).
  Proof.
    induction m as [|x m IH]; intros; simpl; auto. rewrite IH; auto.
  Qed.

  Lemma strip_spec : forall l : list X,
    exists tl, l = strip keep l ++ tl /\ forallb (fun x => negb (keep x)) tl = true.
  Proof.
    induction l as [|x l [tl [H1 H2]]]; simpl.
    - exists []; auto.
    - destruct (strip keep l) as [|z r] eqn:E.
      + destruct (keep x) eqn:K.
        * exists tl. simpl in H1. subst l. auto.
        * exists (x :: tl). simpl in *. subst l. rewrite K; auto.
      + exists tl. split; auto. simpl. f_equal. auto.
  Qed.
  Lemma strip_last_kept : forall (l : list X) m y, strip keep l = m ++ [y] -> keep y = true.
  Proof.
    induction l as [|x l IH]; intros m y H; simpl in *.
    - destruct m; discriminate.
    - destruct (strip keep l) as [|z r] eqn:E.
      + destruct (keep x) eqn:K.
        * destruct m as [|? [|? ?]]; simpl in H; inversion H; subst; auto.
        * destruct m; discriminate.
      + destruct m as [|x' m]; simpl in H.
        * inversion H.
        * inversion H; subst. eapply IH; eauto.
  Qed.
  Lemma strip_length : forall l : list X, length (strip keep l) <= length l.
  Proof.
    intros l. destruct (strip_spec l) as [tl [H _]]. rewrite H at 2. rewrite app_length. lia.
  Qed.
  Lemma filter_none : forall tl : list X, forallb (fun x => negb (keep x)) tl = true -> filter keep tl = [].
  Proof.
    induction tl as [|x tl IH]; simpl; auto. intros H. btrue. rewrite H. auto.
  Qed.
  Lemma strip_filter : forall l : list X, filter keep (strip keep l) = filter keep l.
  Proof.
    intros l. destruct (strip_spec l) as [tl [H1 H2]]. rewrite H1 at 2.
    rewrite filter_app, (filter_none tl H2), app_nil_r. auto.
  Qed.

  Theorem fbs_perm_gen : forall fuel (l : list X), length l <= fuel -> Permutation (fbs keep fuel l) (filter keep l).
  Proof.
    induction fuel as [|f IH]; intros l Hl.
    - destruct l; simpl in *; [constructor|lia].
    - destruct l as [|x rest]; simpl in *; [constructor|].
      destruct (keep x) eqn:K.
      + constructor. apply IH. lia.
      + rewrite <- strip_filter.
        destruct (unsnoc (strip keep rest)) as [[mid y]|] eqn:E.
        * apply unsnoc_Some in E. pose proof (strip_last_kept _ _ _ E) as Ky.
          pose proof (strip_length rest) as Hlen.
          rewrite E in *. rewrite filter_app. simpl. rewrite Ky.
          rewrite app_length in Hlen. simpl in Hlen.
          eapply Permutation_trans; [|apply Permutation_cons_append].
          constructor. apply IH. lia.
        * apply unsnoc_None in E. rewrite E. simpl. constructor.
  Qed.

  Lemma fbs_length : forall fuel (l : list X), length (fbs keep fuel l) <= length l.
  Proof.
    induction fuel as [|f IH]; intros l; simpl; [lia|].
    destruct l as [|x rest]; simpl; [lia|].
    destruct (keep x).
    - simpl. specialize (IH rest). lia.
    - destruct (unsnoc (strip keep rest)) as [[mid y]|] eqn:E; simpl; [|lia].
      apply unsnoc_Some in E. pose proof (strip_length rest) as Hlen. rewrite E, app_length in Hlen.
      simpl in Hlen. specialize (IH mid). lia.
  Qed.

  Theorem fbs_positions_gen : forall fuel (l : list X) i b,
    nth_error l i = Some b -> keep b = true -> i < length (fbs keep fuel l) ->
    nth_error (fbs keep fuel l) i = Some b.
  Proof.
    induction fuel as [|f IH]; intros l i b Hn Kb Hi; simpl in *; [lia|].
    destruct l as [|x rest]; simpl in *; [lia|].
    destruct (keep x) eqn:K.
    - destruct i as [|j]; simpl in *; auto. apply IH; auto. lia.
    - destruct i as [|j]; simpl in *.
      + inversion Hn; subst. congruence.
      + destruct (unsnoc (strip keep rest)) as [[mid y]|] eqn:E; simpl in *; [|lia].
        apply unsnoc_Some in E.
        destruct (strip_spec rest) as [tl [H1 _]]. rewrite E in H1.
        assert (Hj : j < length mid) by (pose proof (fbs_length f mid); lia).
        apply IH; auto; [|lia].
        rewrite H1 in Hn. rewrite <- app_assoc in Hn. rewrite nth_error_app1 in Hn; auto.
  Qed.

  Theorem fbs_prefix_gen : forall (pre l : list X) fuel,
    forallb keep pre = true -> fbs keep (length pre + fuel) (pre ++ l) = pre ++ fbs keep fuel l.
  Proof.
    induction pre as [|x pre IH]; intros l fuel H; simpl in *; auto.
    btrue. rewrite H. f_equal. apply IH; auto.
  Qed.

  Lemma fbs_In_gen : forall fuel (l : list X) b, length l <= fuel ->
    (In b (fbs keep fuel l) <-> In b l /\ keep b = true).
  Proof.
    intros fuel l b Hl. rewrite <- filter_In. pose proof (fbs_perm_gen fuel l Hl) as P. split; intros H.
    - eapply Permutation_in; eauto.
    - eapply Permutation_in; [apply Permutation_sym|]; eauto.
  Qed.
End FbsGeneric.

Lemma NoDup_map_filter : forall {A B} (f : A -> B) (p : A -> bool) (l : list A),
  NoDup (map f l) -> NoDup (map f (filter p l)).
Proof.
  induction l as [|x l IH]; simpl; intros H; auto.
  inversion H as [|? ? Hn Hnd]; subst.
  destruct (p x); simpl; auto. constructor; auto.
  intros Hin. apply Hn. apply in_map_iff in Hin. destruct Hin as [y [H1 H2]].
  apply filter_In in H2. apply in_map_iff. exists y; tauto.
Qed.

Theorem fbs_perm : forall c s, Permutation (filter_by_set c s) (filter (keep_in s) c).
Proof. intros; unfold filter_by_set; apply fbs_perm_gen; lia. Qed.

Theorem fbs_positions : forall c s i b,
  nth_error c i = Some b -> mem (idn (bvar b)) s = true -> (i < length (filter_by_set c s))%nat ->
  nth_error (filter_by_set c s) i = Some b.
Proof. intros; unfold filter_by_set; apply fbs_positions_gen; auto. Qed.

Lemma fbs_In : forall c s b, In b (filter_by_set c s) <-> In b c /\ In (idn (bvar b)) s.
Proof.
  intros; unfold filter_by_set. rewrite fbs_In_gen by lia. unfold keep_in. rewrite mem_In. tauto.
Qed.
Lemma fbs_NoDup : forall c s, NoDup (ids c) -> NoDup (ids (filter_by_set c s)).
Proof.
  intros c s H. unfold ids.
  eapply Permutation_NoDup; [apply Permutation_sym, Permutation_map, fbs_perm|].
  apply NoDup_map_filter; auto.
Qed.
Lemma fbs_ids_In : forall c s x, In x (ids (filter_by_set c s)) <-> In x (ids c) /\ In x s.
Proof.
  intros c s x; split.
  - intros H. apply In_ids_ex in H. destruct H as [b [H1 H2]]. apply fbs_In in H1. destruct H1.
    subst; split; auto. apply In_ids; auto.
  - intros [H1 H2]. apply In_ids_ex in H1. destruct H1 as [b [H1 H3]]. subst.
    apply In_ids. apply fbs_In; auto.
Qed.
Lemma fbs_lookup : forall c s x, NoDup (ids c) ->
  lookup_b (filter_by_set c s) x = if mem x s then lookup_b c x else None.
Proof.
  intros c s x Hnd. destruct (mem x s) eqn:M.
  - apply mem_In in M. destruct (lookup_b c x) eqn:E.
    + apply lookup_b_Some in E. destruct E as [E1 E2]. subst x.
      apply lookup_b_In; [apply fbs_NoDup; auto|]. apply fbs_In; auto.
    + apply lookup_b_None. apply lookup_b_None in E. rewrite fbs_ids_In. tauto.
  - apply mem_false in M. apply lookup_b_None. rewrite fbs_ids_In. tauto.
Qed.
Lemma fbs_length_ctx : forall c s, (length (filter_by_set c s) <= length c)%nat.
Proof. intros; unfold filter_by_set; apply fbs_length. Qed.
