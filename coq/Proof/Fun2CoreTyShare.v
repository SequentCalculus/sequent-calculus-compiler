(* Proof/Fun2CoreTyShare  -  typing of shared continuations (compile.rs `share`):
   - the invariant [KT] of a continuation during the translation of one definition;
   - [share_ok]: the lifted definition `share_<f>_<n>` is well typed - its parameter list (the typed
     free variables of the body, core_lang's TypedFreeVars) has pairwise distinct names, declared types,
     and the body is typed in it (Proof/CoreTyFv.v typed_in_own_fvs) - and the call that replaces the
     continuation, mu~ x. share_<f>_<n>(free variables), is again a continuation with the invariant. *)
From Coq Require Import List ZArith NArith String Bool Lia.
From SCC Require Import Proof.CoreInd.
From SCC Require Import Base.Sexp Lang.SynUtil Lang.FunSyn Lang.FunTy Lang.CoreSyn.
From SCC Require Import Sem.AxSem Sem.FunSem Sem.FsCheck Sem.CoreCheck Model.Fun2Core Model.Fun2CoreGuard Model.Fun2CoreTyGuard.
From SCC Require Import Proof.Fun2CoreProof Proof.Fun2CoreTfv Proof.Fun2CoreInv Proof.CoreTyRules Proof.CoreTyFv
     Proof.Fun2CoreTyBase.
From SCC Require Proof.Fun2CoreUB.
Import ListNotations.
Open Scope string_scope.
Open Scope list_scope.

Lemma new_id_neq : forall a b, a <> b -> cident_eqb (new_id a) (new_id b) = false.
Proof. intros a b H. apply cident_eqb_neq. intros E. apply H. apply new_id_inj. exact E. Qed.

Lemma cbinding_dec : forall a b : cbinding, a = b \/ a <> b.
Proof.
  intros a b. destruct (cbinding_eqb a b) eqn:E.
  - left. apply cbinding_eqb_eq. exact E.
  - right. intros H. apply cbinding_eqb_eq in H. congruence.
Qed.

Section Share.
  Variable data codata : list ctydecl.
  Variable defs : list cdef.          (* the definitions of the final Core program *)
  Variable U : list string.           (* the user names of the current definition: parameters and binders *)
  Notation ct := (ccheck_term data codata defs).
  Notation cs := (ccheck_stmt data codata defs).
  Notation tyd := (tyd data codata).

  (* names generated so far *)
  Definition gen (st : cstate) (y : string) : Prop := In y (st_used_vars st) /\ ~ In y U.
  Definition agree (st : cstate) (S : list string) (G' G : cctx) : Prop :=
    forall y, In y S \/ gen st y -> clookup G' (new_id y) = clookup G (new_id y).
  Definition KT (cont : cterm) (ty : cty) (G : cctx) (st : cstate) (S : list string) : Prop :=
    forall G', agree st S G' G -> ct G' CCns ty cont = None.

  Definition tyd_fv (l : bset) : Prop := forall b, In b l -> tyd (cbty b) = true.
  Definition def_typed (d : cdef) : Prop :=
    NoDup (cvars (cdctx d)) /\ (forall b, In b (cdctx d) -> tyd (cbty b) = true) /\ cs (cdctx d) (cdbody d) = None.
  (* every definition of l is the one found under its name in the final program *)
  Definition Hfind (l : list cdef) : Prop :=
    forall d, In d l -> find (fun d' => cident_eqb (cdname d') (cdname d)) defs = Some d.

  Lemma agree_refl : forall st S G, agree st S G G.
  Proof. intros st S G y _. reflexivity. Qed.
  Lemma agree_trans : forall st S G1 G2 G3, agree st S G1 G2 -> agree st S G2 G3 -> agree st S G1 G3.
  Proof. intros st S G1 G2 G3 H1 H2 y Hy. rewrite (H1 y Hy). apply H2. exact Hy. Qed.
  Lemma agree_mono : forall st st1 S S1 G' G,
    agree st1 S1 G' G -> incl (st_used_vars st) (st_used_vars st1) -> incl S S1 -> agree st S G' G.
  Proof.
    intros st st1 S S1 G' G H Hu Hs y [Hy|[Hy1 Hy2]]; apply H; [left; apply Hs; exact Hy | right; split; [apply Hu; exact Hy1 | exact Hy2]].
  Qed.
  Lemma KT_shift : forall cont ty G G2 st S, KT cont ty G st S -> agree st S G2 G -> KT cont ty G2 st S.
  Proof. intros cont ty G G2 st S H Ha G' Hg. apply H. eapply agree_trans; eassumption. Qed.
  Lemma KT_mono : forall cont ty G st st1 S S1,
    KT cont ty G st S -> incl (st_used_vars st) (st_used_vars st1) -> incl S S1 -> KT cont ty G st1 S1.
  Proof. intros cont ty G st st1 S S1 H Hu Hs G' Hg. apply H. eapply agree_mono; eassumption. Qed.
  Lemma KT_here : forall cont ty G st S, KT cont ty G st S -> ct G CCns ty cont = None.
  Proof. intros cont ty G st S H. apply H. apply agree_refl. Qed.

  Lemma captures_false : forall vs cont, captures vs cont = false <->
    forall v bb, In v vs -> In bb (fvt cont) -> String.eqb (fst (cbvar bb)) v = false.
  Proof.
    intros vs cont. unfold captures. rewrite <- not_true_iff_false, existsb_exists. split.
    - intros H v bb Hv Hbb. apply not_true_iff_false. intros E. apply H. exists v. split; [exact Hv|].
      apply existsb_exists. exists bb. split; assumption.
    - intros H [v [Hv E]]. apply existsb_exists in E. destruct E as [bb [Hbb E]]. rewrite (H v bb Hv Hbb) in E. discriminate E.
  Qed.
  Lemma captures_name : forall vs cont, captures vs cont = false ->
    forall b, In b (fvt cont) -> existsb (String.eqb (fst (cbvar b))) vs = false.
  Proof.
    intros vs cont H b Hb. apply not_true_iff_false. intros E. apply existsb_exists in E. destruct E as [v [Hv E]].
    rewrite (proj1 (captures_false vs cont) H v b Hv Hb) in E. discriminate E.
  Qed.
  Lemma captures_incl : forall vs vs' cont, captures vs cont = false -> incl vs' vs -> captures vs' cont = false.
  Proof.
    intros vs vs' cont H Hi. apply captures_false. intros v bb Hv. apply (proj1 (captures_false vs cont) H). apply Hi. exact Hv.
  Qed.
  Lemma captures_sub : forall vs cont k, (forall bb, In bb (fvt k) -> In bb (fvt cont)) ->
    captures vs cont = false -> captures vs k = false.
  Proof.
    intros vs cont k Hs H. apply captures_false. intros v bb Hv Hbb. apply (proj1 (captures_false vs cont) H v bb Hv). apply Hs. exact Hbb.
  Qed.

  (* ---------- the capture check of the repaired translation (fix d5d4151) never fires on a guarded term:
     binders that are neither in S nor generated do not occur (by name) in a continuation with the invariant ---------- *)
  Lemma clookup_filter : forall f G x, (forall b, cbvar b = x -> f b = true) -> clookup (filter f G) x = clookup G x.
  Proof.
    intros f G x Hf. induction G as [|a r IH]; [reflexivity|]. cbn [filter clookup].
    destruct (cident_eqb (cbvar a) x) eqn:E.
    - apply cident_eqb_eq in E. rewrite (Hf a E). cbn [clookup]. apply cident_eqb_eq in E. rewrite E. reflexivity.
    - destruct (f a); [cbn [clookup]; rewrite E|]; exact IH.
  Qed.
  Lemma KT_captures : forall cont ty G st S binders,
    KT cont ty G st S -> (forall v, In v binders -> ~ In v S /\ ~ gen st v) -> captures binders cont = false.
  Proof.
    intros cont ty G st S binders HK Hb.
    set (f := fun b : cbinding => negb (existsb (String.eqb (fst (cbvar b))) binders)).
    assert (Hag : agree st S (filter f G) G).
    { intros y Hy. apply clookup_filter. intros b Eb. unfold f. rewrite Eb. simpl. apply negb_true_iff.
      destruct (existsb (String.eqb y) binders) eqn:E; [|reflexivity]. apply existsb_exists in E. destruct E as [v [Hv Ev]].
      apply String.eqb_eq in Ev. subst v. destruct (Hb y Hv) as [H1 H2]. destruct Hy; contradiction. }
    pose proof (HK _ Hag) as Ht. pose proof (fv_lookup_term data codata defs cont _ _ _ Ht) as Hl.
    apply captures_false. intros v bb Hv Hbb. apply not_true_iff_false. intros E. apply String.eqb_eq in E.
    pose proof (Hl bb Hbb) as Hlk. apply clookup_In in Hlk. apply filter_In in Hlk. destruct Hlk as [_ Hf]. unfold f in Hf.
    apply negb_true_iff in Hf.
    assert (Ht' : existsb (String.eqb (fst (cbvar bb))) binders = true).
    { apply existsb_exists. exists v. split; [exact Hv|]. rewrite E. apply String.eqb_refl. }
    rewrite Ht' in Hf. discriminate Hf.
  Qed.
  Lemma guard_capture_KT : forall binders (w : cterm -> M cstmt) lty cont st s st' ty G S,
    guard_capture false binders w lty cont st = Ok (s, st') -> KT cont ty G st S ->
    (forall v, In v binders -> ~ In v S /\ ~ gen st v) -> w cont st = Ok (s, st').
  Proof.
    intros binders w lty cont st s st' ty G S H HK Hb. unfold guard_capture in H.
    rewrite (KT_captures cont ty G st S binders HK Hb) in H. exact H.
  Qed.

  (* ---------- binders whose NAMES do not occur free in the continuation (what the capture check of the repaired
     translation establishes) do not disturb it, whatever S says about them ---------- *)
  Lemma clookup_filter_none : forall f G x, (forall b, cbvar b = x -> f b = false) -> clookup (filter f G) x = None.
  Proof.
    intros f G x Hf. induction G as [|a r IH]; [reflexivity|]. cbn [filter].
    destruct (f a) eqn:Ea; [|exact IH]. cbn [clookup].
    destruct (cident_eqb (cbvar a) x) eqn:E; [|exact IH]. apply cident_eqb_eq in E. rewrite (Hf a E) in Ea. discriminate Ea.
  Qed.
  Lemma KT_rebind : forall cont ty G G1 st S vs,
    KT cont ty G st S -> captures vs cont = false ->
    (forall y, In y S \/ gen st y -> ~ In y vs -> clookup G1 (new_id y) = clookup G (new_id y)) ->
    KT cont ty G1 st S.
  Proof.
    intros cont ty G G1 st S vs HK Hc H1 G2 Hag.
    set (inv := fun b : cbinding => existsb (String.eqb (fst (cbvar b))) vs).
    set (Gs := filter inv G ++ filter (fun b => negb (inv b)) G2).
    assert (HGs : agree st S Gs G).
    { intros y Hy. unfold Gs. rewrite clookup_app. destruct (existsb (String.eqb y) vs) eqn:E.
      - rewrite (clookup_filter inv G (new_id y)); [|intros b Eb; unfold inv; rewrite Eb; exact E].
        destruct (clookup G (new_id y)) eqn:El; [reflexivity|]. apply clookup_filter_none.
        intros b Eb. unfold inv. rewrite Eb. simpl. rewrite E. reflexivity.
      - rewrite (clookup_filter_none inv G (new_id y)); [|intros b Eb; unfold inv; rewrite Eb; exact E].
        rewrite clookup_filter; [|intros b Eb; unfold inv; rewrite Eb; simpl; rewrite E; reflexivity].
        rewrite (Hag y Hy). apply H1; [exact Hy|]. intros Hin.
        assert (Ht : existsb (String.eqb y) vs = true) by (apply existsb_exists; exists y; split; [exact Hin | apply String.eqb_refl]).
        rewrite Ht in E. discriminate E. }
    pose proof (HK _ HGs) as Ht.
    apply (ctx_agree_term data codata defs cont Gs G2 _ _ Ht).
    intros b Hb. pose proof (fv_lookup_term data codata defs cont _ _ _ Ht b Hb) as Hl.
    pose proof (captures_name vs cont Hc b Hb) as Hn.
    unfold Gs in Hl. rewrite clookup_app in Hl.
    rewrite (clookup_filter_none inv G (cbvar b)) in Hl; [|intros b' Eb; unfold inv; rewrite Eb; exact Hn].
    rewrite clookup_filter in Hl; [exact Hl|]. intros b' Eb. unfold inv. rewrite Eb, Hn. reflexivity.
  Qed.
  (* a consumer that is typed is a consumer in the sense of the free-variable lemmas *)
  Lemma ct_cont_cns : forall G ty cont, ct G CCns ty cont = None -> Fun2CoreUB.cont_cns cont.
  Proof. intros G ty cont H. destruct cont; try exact I. apply ct_mu in H. simpl. tauto. Qed.

  (* a binder whose name is neither free in the continuation nor generated does not disturb it *)
  Lemma agree_cons : forall st S b0 v G, cbvar b0 = new_id v -> ~ In v S -> ~ gen st v -> agree st S (b0 :: G) G.
  Proof.
    intros st S b0 v G Hb Hs Hg y Hy. rewrite clookup_cons, Hb.
    destruct (String.eqb v y) eqn:E.
    - apply String.eqb_eq in E. subst y. exfalso. destruct Hy; contradiction.
    - apply String.eqb_neq in E. rewrite (new_id_neq _ _ E). reflexivity.
  Qed.
  Lemma agree_app : forall st S A G,
    (forall b, In b A -> exists v, cbvar b = new_id v /\ ~ In v S /\ ~ gen st v) -> agree st S (A ++ G) G.
  Proof.
    intros st S A G. induction A as [|b0 r IH]; intros H; [apply agree_refl|].
    destruct (H b0 (or_introl eq_refl)) as [v [Hb [Hs Hg]]].
    eapply agree_trans; [apply (agree_cons st S b0 v (r ++ G) Hb Hs Hg)|].
    apply IH. intros b Hb'. apply H. right. exact Hb'.
  Qed.

  Lemma ct_type : forall G side ty t, ct G side ty t = None -> cterm_type t = ty.
  Proof.
    intros G side ty t H. destruct t; simpl.
    - apply ct_var in H. tauto.
    - apply ct_lit in H. destruct H as [_ ->]. reflexivity.
    - apply ct_op in H. destruct H as [_ [-> _]]. reflexivity.
    - apply ct_mu in H. tauto.
    - apply ct_xtor in H. tauto.
    - apply ct_xcase in H. tauto.
  Qed.

  Lemma args_of_bindings_typed : forall G bs,
    (forall b, In b bs -> clookup G (cbvar b) = Some b) ->
    args_typed data codata defs G (map arg_of_binding bs) bs.
  Proof.
    intros G bs. induction bs as [|b r IH]; intros H; simpl; constructor.
    - pose proof (H b (or_introl eq_refl)) as Hb. destruct b as [v c ty]. unfold arg_of_binding, arg_typed. simpl in *.
      destruct c; apply ct_var; auto.
    - apply IH. intros b' Hb'. apply H. right. exact Hb'.
  Qed.

  Variable cur : string.

  (* what `share` needs about the body it lifts, whatever the shape of the continuation *)
  Lemma share_core : forall (var : cident) (ty : cty) (body : cstmt) (name : string) G st' S k newdef (fvc0 : bset),
    newdef = mkcd (new_id name) (tfv_stmt body []) body ->
    k = CMu CCns var (CCall (new_id name) (map arg_of_binding (tfv_stmt body [])) ty) ty ->
    (forall G', agree st' S G' G -> cs (mkcb var CPrd ty :: G') body = None) ->
    (forall b, In b (fvs body) -> b = mkcb var CPrd ty \/ In b fvc0) ->
    tyd ty = true ->
    find (fun d' => cident_eqb (cdname d') (new_id name)) defs = Some newdef ->
    KT k ty G st' S /\
    (tyd_fv fvc0 -> def_typed newdef /\ tyd_fv (fvt k)).
  Proof.
    intros var ty body name G st' S k newdef fvc0 -> -> HA Hfv Hty Hfd. split.
    - intros G' Hg. apply ct_mu. split; [reflexivity|]. split; [reflexivity|]. cbn [opp].
      apply cs_call. split; [exact Hty|]. eexists. split; [exact Hfd|]. cbn [cdctx].
      apply args_of_bindings_typed. intros b Hb.
      exact (fv_lookup_stmt data codata defs body _ (HA G' Hg) b Hb).
    - intros Hc. pose proof (HA G (agree_refl _ _ _)) as Hb.
      assert (Htf : tyd_fv (fvs body)).
      { intros b Hin. destruct (Hfv b Hin) as [->|Hin']; [exact Hty | apply Hc; exact Hin']. }
      split.
      + unfold def_typed. cbn [cdctx cdbody]. split; [|split].
        * eapply fvs_names_nodup. exact Hb.
        * exact Htf.
        * eapply typed_in_own_fvs. exact Hb.
      + intros b Hin. apply fvt_mu_1 in Hin. apply (proj1 (fvs_call _ _ _ _)) in Hin.
        apply (proj1 (fva_arg_of_binding _ _)) in Hin. apply Htf. exact Hin.
  Qed.

  Theorem share_ok : forall cont st k st' ty G S,
    share cur cont st = Ok (k, st') ->
    KT cont ty G st S -> tyd ty = true ->
    incl S (st_used_vars st) -> incl U (st_used_vars st) ->
    Hfind (st_lifted st') ->
    KT k ty G st' S /\
    (tyd_fv (fvt cont) -> tyd_fv (fvt k) /\ (Forall def_typed (st_lifted st) -> Forall def_typed (st_lifted st'))).
  Proof.
    intros cont st k st' ty G S H HK Hty HS HU Hf.
    destruct (share_inv _ _ _ _ _ H) as [var [ty0 [body [stv [name [Hm [Hv [Hl Hk]]]]]]]].
    set (newdef := mkcd (new_id name) (tfv_stmt body []) body) in *.
    assert (Hfd : find (fun d' => cident_eqb (cdname d') (new_id name)) defs = Some newdef).
    { apply (Hf newdef). rewrite Hl. left. reflexivity. }
    pose proof (KT_here _ _ _ _ _ HK) as Hhere.
    assert (Hcase :
      ty0 = ty /\
      (forall G', agree st' S G' G -> cs (mkcb var CPrd ty :: G') body = None) /\
      (forall b, In b (fvs body) -> b = mkcb var CPrd ty \/ In b (fvt cont)) /\
      st_lifted stv = st_lifted st).
    { destruct (is_mu cont) eqn:Emu.
      - (* the continuation is a mu~-abstraction: its own variable and body *)
        destruct cont as [c v t | n | a o b | c v s t | c x args t | c cls t]; try discriminate.
        destruct Hm as [Hvar [Ht [Hbody Hstv]]]. subst var ty0 body stv.
        apply ct_mu in Hhere. destruct Hhere as [-> [-> _]].
        split; [reflexivity|]. split; [|split; [|reflexivity]].
        + intros G' Hg. assert (Hg' : agree st S G' G).
          { intros y Hy. apply Hg. destruct Hy as [Hy|[Hy1 Hy2]]; [left; exact Hy | right; split; [rewrite Hv; exact Hy1 | exact Hy2]]. }
          pose proof (HK G' Hg') as Hc. apply ct_mu in Hc. destruct Hc as [_ [_ Hc]]. exact Hc.
        + intros b Hb. destruct (cbinding_dec b (mkcb v CPrd ty)) as [E|E]; [left; exact E | right].
          apply fvt_mu_iff. split; [exact Hb | exact E].
      - (* any other continuation: a fresh variable is cut against it *)
        assert (Hm' : exists x, fresh_var st = Ok (x, stv) /\ var = new_id x /\ ty0 = cterm_type cont /\
                                body = CCut (CXVar CPrd (new_id x) ty0) ty0 cont).
        { destruct cont; try exact Hm. discriminate. }
        clear Hm. destruct Hm' as [x [Hx [Hvar [Ht Hbody]]]].
        assert (Ety : ty0 = ty) by (rewrite Ht; eapply ct_type; exact Hhere).
        destruct (fresh_in_vars_inv _ _ _ _ Hx) as [Hfresh [Hused [_ Hlift]]].
        split; [exact Ety|]. clear Ht. subst ty0 var body. split; [|split; [|exact Hlift]].
        + intros G' Hg. apply cs_cut. split; [exact Hty|]. split.
          * apply ct_var. repeat split. rewrite clookup_cons. cbn [cbvar]. rewrite cident_eqb_refl. reflexivity.
          * apply HK. intros y Hy. rewrite clookup_cons. cbn [cbvar].
            assert (Hyu : In y (st_used_vars st)) by (destruct Hy as [Hy|[Hy _]]; [apply HS; exact Hy | exact Hy]).
            assert (Hne : x <> y) by (intros ->; contradiction).
            rewrite (new_id_neq _ _ Hne). apply Hg.
            destruct Hy as [Hy|[Hy1 Hy2]]; [left; exact Hy | right; split; [rewrite Hv, Hused; right; exact Hy1 | exact Hy2]].
        + intros b Hb. apply fvs_cut in Hb. destruct Hb as [Hb|Hb]; [left; apply fvt_var in Hb; exact Hb | right; exact Hb]. }
    destruct Hcase as [-> [HA [Hfv Hlift]]].
    destruct (share_core var ty body name G st' S k newdef (fvt cont) eq_refl Hk HA Hfv Hty Hfd) as [HK' Hrest].
    split; [exact HK'|]. intros Hc. destruct (Hrest Hc) as [Hd Hk']. split; [exact Hk'|].
    intros Hall. rewrite Hl, Hlift. constructor; assumption.
  Qed.
End Share.
