(* The bounds of Proof/CodegenForallLin.v for AArch64 and RISC-V.  Unlike in the x86-64 development the bound SM on the
   number of copies of one variable made by a Substitute is NOT a guard on the program: it follows from the capacity of
   the back end - fewer than 2 * SM temporaries exist (Hcap), every copy of a variable gets one, copies have distinct
   positions ([targets_bound]).  AArch64 takes SM = 4096, RISC-V SM = 2048 (Sem/WfGuard64.v); XM and lit are those of
   their guards. *)
From Coq Require Import List ZArith NArith String Bool Lia.
From SCC Require Import Base.Sexp Lang.AxSyn Model.ParMoves Model.Backend Model.Linearize Model.LinCheck Model.Capacity
  Sem.WfGuard Sem.WfGuard64 Proof.LinBasics Proof.LinTyping Proof.SubstGraph Proof.BackendInv Proof.CodegenTotal Proof.CodegenForall
  Proof.CodegenForallLin.
Import ListNotations.
Open Scope list_scope.

Section ForallLinP.
Context {Code Temp : Type} (B : backend Code Temp).
Hypothesis OKB : backend_ok B.
Variable S : sigs.
Variables SM XM : N.
Variable lit : Z -> bool.
Notation types := (sg_types S).
Variable T : Temp -> Prop.
Variable Q : list Code -> Prop.
Variable L : string -> Prop.
Hypothesis Qnil : Q [].
Hypothesis Qapp : forall a b, Q a -> Q b -> Q (a ++ b).
Hypothesis Ttfp : forall p t, b_temporary_from_position B p = Ok t -> T t.
Hypothesis Ttemp : T (b_temp B).
Hypothesis Tret : T (b_return1 B).
Hypothesis m_label : forall l, L l -> Q [b_label B l].
Hypothesis m_mark : forall c, Q (b_mark B c).
Hypothesis m_jump : forall t, T t -> Q (b_jump B t).
Hypothesis m_jump_label : forall l, L l -> Q (b_jump_label B l).
Hypothesis m_jump_label_fixed : forall l, L l -> Q (b_jump_label_fixed B l).
Hypothesis m_jcc2 : forall s a b l, T a -> T b -> L l -> Q (b_jcc2 B s a b l).
Hypothesis m_jcc1 : forall s a l, T a -> L l -> Q (b_jcc1 B s a l).
Hypothesis m_load_immediate : forall t i, T t -> lit i = true -> Q (b_load_immediate B t i).
Hypothesis m_load_tag : forall t k, T t -> (k < XM)%N -> Q (b_load_immediate B t (b_jump_length B k)).
Hypothesis m_load_label : forall t l, T t -> L l -> Q (b_load_label B t l).
Hypothesis m_add_and_jump : forall t k, T t -> (k < XM)%N -> Q (b_add_and_jump B t (b_jump_length B k)).
Hypothesis m_arith : forall o t a b, T t -> T a -> T b -> t <> a -> t <> b -> Q (b_arith B o t a b).
Hypothesis m_arith_table : forall a, T a -> Q (b_arith B Sum (b_temp B) (b_temp B) a).
Hypothesis m_mov : forall t s, T t -> T s -> Q (b_mov B t s).
Hypothesis m_print : forall nl t c, T t -> Q (b_print B nl t c).
Hypothesis m_erase : forall t lc, T t -> Q (fst (b_erase B t lc)).
Hypothesis m_share : forall t n lc, T t -> (n < SM)%N -> Q (fst (b_share_n B t n lc)).
Hypothesis m_store : forall a r lc c lc', b_store B a r lc = Ok (c, lc') -> Q c.
Hypothesis m_load : forall a r lc c lc', b_load B a r lc = Ok (c, lc') -> Q c.
Hypothesis m_store_temporary : forall t f, T t -> Q (b_store_temporary B t f).
Hypothesis m_restore_temporary : forall t f, T t -> Q (b_restore_temporary B t f).
Hypothesis L_lab : forall k, L ("lab" +++ n_to_string k).
Hypothesis L_cleanup : L "cleanup".
Hypothesis L_def : forall l ps, lookup_label S l = Some ps -> L (show_ident l +++ "_").
Hypothesis L_type : forall t xs k, type_xtors S t = Some xs ->
  L (type_label t k) /\ forall x, L (type_label t k +++ "_" +++ x).
Hypothesis X_small : xtors_le XM types = true.
(* fewer than 2 * SM temporaries exist: a variable is copied fewer than SM times by a Substitute that compiles *)
Hypothesis Hcap : forall p t, b_temporary_from_position B p = Ok t -> (p < 2 * SM)%N.

(* the number of copies of one variable, from the capacity *)
Lemma conn_targets c nc : forall tm rm am, fold_left (conn_step B c nc) tm rm = Ok am ->
  forall b tg, In (b, tg) tm -> exists ts, rmap (fun t => variable_temporary B Snd nc t) tg = Ok ts.
Proof.
  induction tm as [|[b0 tg0] tm IH]; intros rm am H b tg HI; [destruct HI|]. cbn [fold_left] in H.
  destruct HI as [HE|HI]; [|exact (IH _ _ H b tg HI)]. inversion HE; subst b0 tg0. clear IH.
  destruct (conn_step B c nc rm (b, tg)) as [m'|e] eqn:ST; [|rewrite conn_fold_err in H; discriminate].
  unfold conn_step in ST. destruct rm as [m|e]; cbn [rbind] in ST; [|discriminate].
  assert (G : forall m0 m1, ins B c nc Snd b tg m0 = Ok m1 -> exists ts, rmap (fun t => variable_temporary B Snd nc t) tg = Ok ts).
  { intros m0 m1 K. unfold ins in K. ub K. ub K. eauto. }
  destruct (bchi b); [ub ST; eapply G; eauto|ub ST; eapply G; eauto|eapply G; eauto].
Qed.
Lemma rmap_all {X Y} (f : X -> res Y) : forall l ys, rmap f l = Ok ys -> forall x, In x l -> exists y, f x = Ok y.
Proof.
  induction l as [|x0 l IH]; intros ys H x HI; [destruct HI|]. cbn [rmap] in H. ub H. ub H.
  destruct HI as [<-|HI]; [eauto|eapply IH; eauto].
Qed.
Lemma position_of_inj c : forall k a b p, position_of c a k = Some p -> position_of c b k = Some p -> a = b.
Proof.
  induction c as [|x c IH]; intros k a b p Ha Hb; cbn [position_of] in Ha, Hb; [discriminate|].
  destruct (N.eqb_spec (idn (bvar x)) a) as [Ea|Ea], (N.eqb_spec (idn (bvar x)) b) as [Eb|Eb].
  - congruence.
  - inversion Ha; subst. apply position_of_lt in Hb. lia.
  - inversion Hb; subst. apply position_of_lt in Ha. lia.
  - eapply IH; eauto.
Qed.
Lemma pigeon (f : N -> option N) (m : N) (l : list N) : NoDup l ->
  (forall a, In a l -> exists p, f a = Some p /\ (p < m)%N) ->
  (forall a b p, f a = Some p -> f b = Some p -> a = b) ->
  (N.of_nat (List.length l) <= m)%N.
Proof.
  intros ND HP INJ.
  set (g := fun a => match f a with Some p => N.to_nat p | None => O end).
  assert (GI : forall a b, In a l -> In b l -> g a = g b -> a = b).
  { intros a b Ha Hb E. destruct (HP a Ha) as (pa & Fa & _). destruct (HP b Hb) as (pb & Fb & _).
    unfold g in E. rewrite Fa, Fb in E. apply N2Nat.inj in E. subst pb. exact (INJ a b pa Fa Fb). }
  assert (NDg : NoDup (map g l)).
  { clear HP. revert ND GI. induction l as [|a l IH]; intros ND GI; [constructor|].
    inversion ND as [|? ? NI ND']; subst. cbn [map]. constructor.
    - intros HI. apply in_map_iff in HI as (b & Eg & Hb). apply NI.
      rewrite (GI a b (or_introl eq_refl) (or_intror Hb) (eq_sym Eg)). exact Hb.
    - apply IH; [exact ND'|]. intros x y Hx Hy. apply GI; right; assumption. }
  assert (IN : incl (map g l) (seq 0 (N.to_nat m))).
  { intros x Hx. apply in_map_iff in Hx as (a & <- & Ha). destruct (HP a Ha) as (p & Fp & Lp). unfold g. rewrite Fp. apply in_seq. lia. }
  pose proof (NoDup_incl_length NDg IN) as LE. rewrite map_length, seq_length in LE. lia.
Qed.
Lemma NoDup_map_filter {X Y} (f : X -> Y) (P : X -> bool) : forall l, NoDup (map f l) -> NoDup (map f (filter P l)).
Proof.
  induction l as [|x l IH]; intros ND; cbn [filter map]; [constructor|]. cbn [map] in ND. inversion ND as [|? ? NI ND']; subst.
  destruct (P x); [|apply IH; exact ND']. cbn [map]. constructor; [|apply IH; exact ND'].
  intros HI. apply NI. apply in_map_iff in HI as (y & E & Hy). apply filter_In in Hy as [Hy _]. apply in_map_iff. eauto.
Qed.
Lemma targets_bound re c' code : NoDup (ids (map fst re)) ->
  code_exchange B (transpose re c') c' (map fst re) = Ok code ->
  forall b tg, In (b, tg) (transpose re c') -> (N.of_nat (List.length tg) <= SM)%N.
Proof.
  intros ND H b tg HI. unfold code_exchange in H. ub H. rewrite connections_unfold in E.
  destruct (conn_targets _ _ _ _ _ E b tg HI) as [ts RM].
  apply (pigeon (fun t => position_of (map fst re) t 0) SM).
  - rewrite (transpose_shape _ _ _ _ HI). apply NoDup_map_filter. unfold ids in ND. rewrite map_map in ND. exact ND.
  - intros t Ht. destruct (rmap_all _ _ _ RM t Ht) as [y VT]. unfold variable_temporary in VT.
    destruct (position_of (map fst re) t 0) as [p|]; [|discriminate]. exists p. split; [reflexivity|].
    apply Hcap in VT. cbn [tnum_n] in VT. lia.
  - intros a0 b0 p Ha Hb. eapply position_of_inj; eauto.
Qed.

Lemma translate_QLP : forall defs lc code lc',
  forallb (fun d => lin_check S (dctx d) (dbody d) && stmt_immP lit (dbody d)) defs = true ->
  (forall d, In d defs -> L (show_ident (dname d) +++ "_")) ->
  translate B types defs lc = Ok (code, lc') -> Q code.
Proof.
  intros defs lc code lc' G.
  assert (G' : forallb (fun d => lin_check S (dctx d) (dbody d) && stmt_immG (fun _ => true) lit (dbody d)) defs = true).
  { rewrite forallb_forall in *. intros d Hd. rewrite <- stmt_immP_G. exact (G d Hd). }
  revert G'.
  exact (translate_QG B OKB S SM XM (fun _ => true) lit T Q L Qnil Qapp Ttfp Ttemp Tret m_label m_mark m_jump
           m_jump_label m_jump_label_fixed m_jcc2 m_jcc1 m_load_immediate m_load_tag m_load_label m_add_and_jump m_arith
           m_arith_table m_mov m_print m_erase m_share m_store m_load m_store_temporary m_restore_temporary
           L_lab L_cleanup L_def L_type X_small (fun re c' code _ => targets_bound re c' code) defs lc code lc').
Qed.
End ForallLinP.
