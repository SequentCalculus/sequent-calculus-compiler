(* Proof/Fun2CoreProg  -  program level: what compile_prog puts into the Core program for every
   source definition (the definition itself under its own name, its lifted continuations under
   their generated labels, all names distinct), and the preservation theorem for the fragment. *)
From Coq Require Import List ZArith NArith String Bool Lia.
From SCC Require Import Proof.CoreInd.
From SCC Require Import Base.Sexp Lang.SynUtil Lang.FunSyn Lang.FunTy Lang.CoreSyn.
From SCC Require Import Sem.AxSem Sem.CoreSem Sem.FunSem Model.Fun2Core.
From SCC Require Import Proof.Fun2CoreProof Proof.Fun2CoreSim Proof.Fun2CoreTfv Proof.Fun2CoreInv Proof.Fun2CoreUB
     Proof.Fun2CoreRel Proof.Fun2CoreFLa Proof.Fun2CoreFLb Proof.Fun2CoreFLc Proof.Fun2CoreFLd Proof.Fun2CoreFLe
     Proof.Fun2CoreFLf Proof.Fun2CoreFLg Proof.Fun2CoreFLh.
Import ListNotations.
Open Scope string_scope.
Open Scope list_scope.

(* ub = used_binders (the list traversals inside its definition) *)
Definition ub_terms (l : list fterm) (acc : list string) : list string :=
  fold_left (fun acc y => used_binders y acc) l acc.
Definition ub_cls (l : list fclause) (acc : list string) : list string :=
  fold_left (fun acc c => match c with FClause _ _ names _ body => used_binders body (rev_append names acc) end) l acc.

Lemma used_binders_call : forall f args r acc, used_binders (FCall f args r) acc = ub_terms args acc.
Proof. intros f args r. unfold ub_terms. simpl. induction args as [|y l IH]; intros acc; simpl; [reflexivity | apply IH]. Qed.
Lemma used_binders_ctor : forall f args r acc, used_binders (FCtor f args r) acc = ub_terms args acc.
Proof. intros f args r. unfold ub_terms. simpl. induction args as [|y l IH]; intros acc; simpl; [reflexivity | apply IH]. Qed.
Lemma used_binders_dtor : forall s x ta args r acc, used_binders (FDtor s x ta args r) acc = ub_terms args (used_binders s acc).
Proof.
  intros s x ta args r acc. unfold ub_terms. simpl. generalize (used_binders s acc).
  induction args as [|y l IH]; intros a; simpl; [reflexivity | apply IH].
Qed.
Lemma used_binders_case : forall s ta cls r acc, used_binders (FCase s ta cls r) acc = ub_cls cls (used_binders s acc).
Proof.
  intros s ta cls r acc. unfold ub_cls. simpl. generalize (used_binders s acc).
  induction cls as [|[pl x names ctx body] l IH]; intros a; simpl; [reflexivity | apply IH].
Qed.
Lemma used_binders_new : forall cls r acc, used_binders (FNew cls r) acc = ub_cls cls acc.
Proof.
  intros cls r. unfold ub_cls. simpl.
  induction cls as [|[pl x names ctx body] l IH]; intros a; simpl; [reflexivity | apply IH].
Qed.

Lemma used_binders_mono : forall t acc x, In x acc -> In x (used_binders t acc).
Proof.
  induction t using fterm_ind'; intros acc z Hz; try (simpl; auto; fail).
  - simpl. destruct b as [b'|]; simpl in H; auto.
  - simpl. apply IHt2. apply IHt1. right. exact Hz.
  - rewrite used_binders_call. unfold ub_terms. revert acc Hz. induction H as [|y l Hy Hl IH]; intros acc Hz; simpl; auto.
  - rewrite used_binders_ctor. unfold ub_terms. revert acc Hz. induction H as [|y l Hy Hl IH]; intros acc Hz; simpl; auto.
  - rewrite used_binders_dtor. unfold ub_terms. apply IHt with (acc := acc) in Hz. revert Hz. generalize (used_binders t acc).
    induction H as [|y l Hy Hl IH]; intros a Hz; simpl; auto.
  - rewrite used_binders_case. unfold ub_cls. apply IHt with (acc := acc) in Hz. revert Hz. generalize (used_binders t acc).
    induction H as [|[pl x0 names ctx body] l Hy Hl IH]; intros a Hz; simpl; [exact Hz|].
    apply IH. simpl in Hy. apply Hy. rewrite rev_append_rev. apply in_or_app. right. exact Hz.
  - rewrite used_binders_new. unfold ub_cls. revert acc Hz.
    induction H as [|[pl x0 names ctx body] l Hy Hl IH]; intros a Hz; simpl; [exact Hz|].
    apply IH. simpl in Hy. apply Hy. rewrite rev_append_rev. apply in_or_app. right. exact Hz.
  - simpl. apply IHt. right. exact Hz.
Qed.

Lemma ub_terms_mono : forall l acc x, In x acc -> In x (ub_terms l acc).
Proof. unfold ub_terms. induction l as [|y r IH]; intros acc x Hx; simpl; [exact Hx | apply IH; apply used_binders_mono; exact Hx]. Qed.
Lemma ub_cls_mono : forall l acc x, In x acc -> In x (ub_cls l acc).
Proof.
  unfold ub_cls. induction l as [|[pl x0 names ctx body] r IH]; intros acc x Hx; simpl; [exact Hx|].
  apply IH. apply used_binders_mono. rewrite rev_append_rev. apply in_or_app. right. exact Hx.
Qed.

(* occurrences of a name in a list *)
Definition cnt (l : list string) (x : string) : nat := count_occ string_dec l x.
Arguments cnt : simpl never.
Lemma cnt_app : forall a b x, cnt (a ++ b) x = (cnt a x + cnt b x)%nat.
Proof. intros. unfold cnt. apply count_occ_app. Qed.
Lemma cnt_cons : forall y l x, cnt (y :: l) x = ((if string_dec y x then 1 else 0) + cnt l x)%nat.
Proof. intros. unfold cnt. simpl. destruct (string_dec y x); reflexivity. Qed.
Lemma cnt_rev_append : forall l a x, cnt (rev_append l a) x = (cnt l x + cnt a x)%nat.
Proof. intros. unfold cnt. rewrite rev_append_rev, count_occ_app, count_occ_rev. reflexivity. Qed.
Lemma cnt_nil : forall x, cnt [] x = 0%nat.
Proof. reflexivity. Qed.
Lemma cnt_In : forall l x, In x l <-> (1 <= cnt l x)%nat.
Proof. intros l x. unfold cnt. rewrite (count_occ_In string_dec). lia. Qed.

Section Binders.
  Variable p : fcprog.
  Lemma args_frag : forall args, forallb (arg_ok p) args = true -> forall y, In y args -> frag p y = true.
  Proof.
    intros args H y Hy. rewrite forallb_forall in H. specialize (H y Hy).
    destruct y; try (apply andb_prop in H; tauto). reflexivity.
  Qed.
  Lemma dargs_frag : forall args, forallb (darg_ok p) args = true -> forall y, In y args -> frag p y = true.
  Proof. intros args H y Hy. rewrite forallb_forall in H. apply (darg_ok_inv p y (H y Hy)). Qed.

  (* used_binders, counted: the binders of the term plus the accumulator *)
  Lemma ub_terms_cnt : forall args,
    Forall (fun t => forall acc x, frag p t = true -> cnt (used_binders t acc) x = (cnt (bnd t) x + cnt acc x)%nat) args ->
    (forall y, In y args -> frag p y = true) ->
    forall acc x, cnt (ub_terms args acc) x = (cnt (flat_map bnd args) x + cnt acc x)%nat.
  Proof.
    intros args H. induction H as [|y l Hy Hl IH]; intros Hf acc x; [reflexivity|].
    unfold ub_terms. simpl. fold (ub_terms l (used_binders y acc)).
    rewrite IH by (intros y0 Hy0; apply Hf; right; exact Hy0).
    rewrite cnt_app, (Hy acc x (Hf y (or_introl eq_refl))). lia.
  Qed.
  Lemma ub_cls_cnt : forall cls,
    Forall (fun c => forall acc x, frag p (clause_body c) = true ->
                     cnt (used_binders (clause_body c) acc) x = (cnt (bnd (clause_body c)) x + cnt acc x)%nat) cls ->
    clauses_frag p cls = true ->
    forall a z, cnt (ub_cls cls a) z =
      (cnt (flat_map cl_bnd cls) z + cnt a z)%nat.
  Proof.
    intros cls H. induction H as [|[pl x0 names ctx body] l Hy Hl IH]; intros Hfc a z; [reflexivity|].
    simpl in Hfc. apply andb_prop in Hfc. destruct Hfc as [Hfy Hfl].
    apply andb_prop in Hfy. destruct Hfy as [Hfy Hfb]. apply andb_prop in Hfy. destruct Hfy as [Hnames _].
    apply str_list_eqb_eq in Hnames. subst names.
    unfold ub_cls. simpl. fold (ub_cls l (used_binders body (rev_append (fvars ctx) a))).
    rewrite (IH Hfl). simpl in Hy. rewrite (Hy _ _ Hfb), cnt_rev_append, !cnt_app. lia.
  Qed.

  Lemma used_binders_cnt : forall t acc x, frag p t = true -> cnt (used_binders t acc) x = (cnt (bnd t) x + cnt acc x)%nat.
  Proof.
    induction t using fterm_ind'; intros acc z Hf; simpl in Hf; try discriminate; try reflexivity.
    - apply andb_prop in Hf. destruct Hf as [Hf1 Hf2]. simpl. rewrite (IHt2 _ _ Hf2), (IHt1 _ _ Hf1), cnt_app. lia.
    - apply andb_prop in Hf. destruct Hf as [Hf Hf3]. apply andb_prop in Hf. destruct Hf as [Hf Hf2].
      apply andb_prop in Hf. destruct Hf as [Hf1 Hfb]. simpl.
      rewrite (IHt3 _ _ Hf3), (IHt2 _ _ Hf2), !cnt_app.
      destruct b as [b'|]; simpl in H.
      + rewrite (H _ _ Hfb), (IHt1 _ _ Hf1). lia.
      + rewrite (IHt1 _ _ Hf1), cnt_nil. lia.
    - apply andb_prop in Hf. destruct Hf as [Hf1 Hf2]. simpl. rewrite (IHt2 _ _ Hf2), (IHt1 _ _ Hf1), cnt_app. lia.
    - apply andb_prop in Hf. destruct Hf as [Hf1 Hf2]. simpl.
      rewrite (IHt2 _ _ Hf2), (IHt1 _ _ Hf1), !cnt_cons, cnt_app. lia.
    - apply andb_prop in Hf. destruct Hf as [_ Hf]. rewrite used_binders_call. simpl.
      apply ub_terms_cnt; [exact H | apply args_frag; exact Hf].
    - rewrite used_binders_ctor. simpl. apply ub_terms_cnt; [exact H | apply dargs_frag; exact Hf].
    - (* dtor *)
      apply andb_prop in Hf. destruct Hf as [Hf _]. apply andb_prop in Hf. destruct Hf as [Hfs Hfa].
      rewrite used_binders_dtor. simpl. rewrite (ub_terms_cnt args H (dargs_frag args Hfa)), (IHt _ _ Hfs), cnt_app. lia.
    - (* case *)
      apply andb_prop in Hf. destruct Hf as [Hf Hfc]. apply andb_prop in Hf. destruct Hf as [Hfs _].
      rewrite used_binders_case. change (bnd (FCase t targs cls ty)) with (bnd t ++ flat_map cl_bnd cls).
      rewrite (ub_cls_cnt cls H Hfc), (IHt _ _ Hfs), cnt_app. lia.
    - (* new *)
      rewrite used_binders_new. simpl. apply ub_cls_cnt; assumption.
    - apply andb_prop in Hf. destruct Hf as [_ Hf]. simpl. rewrite (IHt _ _ Hf), !cnt_cons. lia.
    - simpl. apply IHt. exact Hf.
    - simpl. apply IHt. exact Hf.
    - simpl. apply IHt. exact Hf.
  Qed.

  Lemma bnd_used_binders : forall t acc x, frag p t = true -> In x (bnd t) -> In x (used_binders t acc).
  Proof. intros t acc x Hf Hx. apply cnt_In. rewrite (used_binders_cnt t acc x Hf). apply cnt_In in Hx. lia. Qed.
End Binders.

Lemma cfind_nodup : forall defs d, NoDup (map cdname defs) -> In d defs ->
  find (fun d' => cident_eqb (cdname d') (cdname d)) defs = Some d.
Proof.
  induction defs as [|d0 r IH]; intros d Hnd Hin; [contradiction|]. simpl.
  simpl in Hnd. inversion Hnd as [|? ? Hnot Hnd']; subst.
  destruct (cident_eqb (cdname d0) (cdname d)) eqn:E.
  - apply cident_eqb_eq in E. destruct Hin as [Hin|Hin]; [subst; reflexivity|].
    exfalso. apply Hnot. rewrite E. apply in_map. exact Hin.
  - destruct Hin as [Hin|Hin]; [subst; rewrite cident_eqb_refl in E; discriminate | apply IH; assumption].
Qed.

(* every source definition is compiled (by compile_main or compile_def) and its group of Core
   definitions is part of the result *)
Lemma compile_defs_groups : forall lg called defs codata ul front back res,
  compile_defs lg called defs codata ul front back = Ok res ->
  (forall d, In d defs -> exists ul1 g ul2,
     (if String.eqb (fdname d) "main" then compile_main_group lg called d codata ul1 else compile_def lg d codata ul1) = Ok (g, ul2) /\
     incl g res) /\
  incl front res /\ incl back res.
Proof.
  intros lg called. induction defs as [|d r IH]; intros codata ul front back res H; simpl in H.
  - injection H as H. subst res. split; [intros d []|]. split.
    + intros x Hx. apply in_or_app. left. exact Hx.
    + intros x Hx. apply in_or_app. right. rewrite rev_append_rev, app_nil_r. apply in_rev in Hx. exact Hx.
  - destruct (String.eqb (fdname d) "main") eqn:E.
    + destruct (compile_main_group lg called d codata ul) as [[g ul']|?] eqn:Em; simpl in H; [|discriminate].
      destruct (IH _ _ _ _ _ H) as [H1 [H2 H3]]. split; [|split].
      * intros d' [Hd|Hd]; [subst d'; rewrite E; exists ul, g, ul'; split; [exact Em|] | apply H1; exact Hd].
        intros x Hx. apply H2. apply in_or_app. left. exact Hx.
      * intros x Hx. apply H2. apply in_or_app. right. exact Hx.
      * exact H3.
    + destruct (compile_def lg d codata ul) as [[g ul']|?] eqn:Em; simpl in H; [|discriminate].
      destruct (IH _ _ _ _ _ H) as [H1 [H2 H3]]. split; [|split].
      * intros d' [Hd|Hd]; [subst d'; rewrite E; exists ul, g, ul'; split; [exact Em|] | apply H1; exact Hd].
        intros x Hx. apply H3. rewrite rev_append_rev. apply in_or_app. left. apply in_rev in Hx. exact Hx.
      * exact H2.
      * intros x Hx. apply H3. rewrite rev_append_rev. apply in_or_app. right. exact Hx.
Qed.

(* the definitions that come first: compile_main of main, or (fix f929eb7, main is called) the entry point
   compiled by compile_main followed by main compiled by compile_def *)
Lemma compile_main_group_inv : forall lg called d codata ul g ul',
  compile_main_group lg called d codata ul = Ok (g, ul') ->
  (called && negb lg = false /\ compile_main lg d codata ul = Ok (g, ul')) \/
  (called && negb lg = true /\
   exists nm e ule m, fresh_name ul "main" = (nm, nm :: ul) /\
     compile_main lg (entry_fdef d nm) codata (nm :: ul) = Ok (e, ule) /\
     compile_def lg d codata ule = Ok (m, ul') /\ g = e ++ m).
Proof.
  intros lg called d codata ul g ul' H. unfold compile_main_group in H.
  destruct (called && negb lg); [right | left; auto]. split; [reflexivity|].
  pose proof (fresh_name_fresh ul "main") as [_ Hsnd].
  destruct (fresh_name ul "main") as [nm ul1] eqn:Efn. simpl in Hsnd. subst ul1.
  destruct (compile_main lg (entry_fdef d nm) codata (nm :: ul)) as [[e ule]|?] eqn:Ee; simpl in H; [|discriminate].
  destruct (compile_def lg d codata ule) as [[m ulm]|?] eqn:Em; simpl in H; [|discriminate].
  injection H as Hg Hul. subst g ul'. exists nm, e, ule, m. auto.
Qed.

(* every definition of the output belongs to a group compiled by compile_main or compile_def (from a source
   definition or from the entry point made of one) *)
Lemma compile_defs_cover : forall lg called defs codata ul front back res,
  compile_defs lg called defs codata ul front back = Ok res ->
  forall x, In x res ->
    In x front \/ In x back \/
    exists d ul1 g ul2,
      (compile_main lg d codata ul1 = Ok (g, ul2) \/ compile_def lg d codata ul1 = Ok (g, ul2)) /\ In x g.
Proof.
  intros lg called. induction defs as [|d r IH]; intros codata ul front back res H x Hx; simpl in H.
  - injection H as H. subst res. apply in_app_or in Hx. destruct Hx as [Hx|Hx]; [left; exact Hx|].
    right. left. rewrite rev_append_rev, app_nil_r in Hx. apply in_rev in Hx. exact Hx.
  - destruct (String.eqb (fdname d) "main") eqn:E.
    + destruct (compile_main_group lg called d codata ul) as [[g ul']|?] eqn:Em; simpl in H; [|discriminate].
      destruct (IH _ _ _ _ _ H x Hx) as [H1|[H1|H1]]; [|right; left; exact H1 | right; right; exact H1].
      apply in_app_or in H1. destruct H1 as [H1|H1]; [|left; exact H1]. right. right.
      destruct (compile_main_group_inv _ _ _ _ _ _ _ Em) as [[_ Hc]|[_ [nm [e [ule [m [_ [He [Hm ->]]]]]]]]].
      * exists d, ul, g, ul'. split; [left; exact Hc | exact H1].
      * apply in_app_or in H1. destruct H1 as [H1|H1].
        -- exists (entry_fdef d nm), (nm :: ul), e, ule. split; [left; exact He | exact H1].
        -- exists d, ule, m, ul'. split; [right; exact Hm | exact H1].
    + destruct (compile_def lg d codata ul) as [[g ul']|?] eqn:Em; simpl in H; [|discriminate].
      destruct (IH _ _ _ _ _ H x Hx) as [H1|[H1|H1]]; [left; exact H1 | | right; right; exact H1].
      rewrite rev_append_rev in H1. apply in_app_or in H1. destruct H1 as [H1|H1]; [|right; left; exact H1].
      right. right. exists d, ul, g, ul'. apply in_rev in H1. split; [right; exact Em | exact H1].
Qed.

Section Prog.
  Variable p : fcprog.
  Variable c : cprog.
  Hypothesis Hcomp : compile_prog p = Ok c.
  Hypothesis Hnd : NoDup (map fdname (fcpdefs p)).
  Hypothesis Hguard : prog_guard p = true.

  Lemma prog_codata : cpcodata c = codata_of p.
  Proof.
    unfold compile_prog, compile_prog_gen in Hcomp.
    destruct (compile_defs false _ (fcpdefs p) _ _ [] []) as [defs|?]; simpl in Hcomp; [|discriminate].
    injection Hcomp as Hc. subst c. reflexivity.
  Qed.

  Lemma prog_defs : exists defs,
    compile_defs false (calls_main_prog p) (fcpdefs p) (codata_of p) (map fdname (fcpdefs p)) [] [] = Ok defs /\ cpdefs c = defs.
  Proof.
    unfold compile_prog, compile_prog_gen in Hcomp. fold (codata_of p) in Hcomp.
    destruct (compile_defs false (calls_main_prog p) (fcpdefs p) (codata_of p) _ [] []) as [defs|?] eqn:E; simpl in Hcomp; [|discriminate].
    injection Hcomp as Hc. subst c. exists defs. auto.
  Qed.

  Lemma prog_find : forall d, In d (cpdefs c) -> cfind_def c (cdname d) = Some d.
  Proof.
    intros d Hd. unfold cfind_def. apply cfind_nodup; [|exact Hd].
    apply (compile_prog_def_names_distinct p c Hcomp Hnd).
  Qed.

  Lemma guard_of : forall d, In d (fcpdefs p) -> def_guard p d = true.
  Proof. intros d Hd. unfold prog_guard in Hguard. rewrite forallb_forall in Hguard. apply Hguard. exact Hd. Qed.

  (* every definition that can be called is compiled by compile_def: all but main, and main too when it is called *)
  Lemma def_group : forall d, In d (fcpdefs p) -> (fdname d <> "main" \/ calls_main_prog p = true) ->
    exists ul1 g ul2, compile_def false d (codata_of p) ul1 = Ok (g, ul2) /\ incl g (cpdefs c).
  Proof.
    intros d Hin Hm. destruct prog_defs as [defs [Hdefs Hcd]].
    destruct (compile_defs_groups _ _ _ _ _ _ _ _ Hdefs) as [Hgroups _].
    destruct (Hgroups d Hin) as [ul1 [g [ul2 [Hc Hincl]]]]. rewrite Hcd.
    destruct (String.eqb (fdname d) "main") eqn:Em.
    - apply String.eqb_eq in Em. destruct Hm as [Hm|Hm]; [contradiction|].
      destruct (compile_main_group_inv _ _ _ _ _ _ _ Hc) as [[Hf _]|[_ [nm [e [ule [m [_ [_ [Hd ->]]]]]]]]].
      + rewrite Hm in Hf. discriminate Hf.
      + exists ule, m, ul2. split; [exact Hd|]. intros x Hx. apply Hincl. apply in_or_app. right. exact Hx.
    - exists ul1, g, ul2. auto.
  Qed.

  Lemma prog_callee : forall f d, ffind_def p f = Some d -> (f <> "main" \/ calls_main_prog p = true) -> callee_ok p c d.
  Proof.
    intros f d Hf Hnm. destruct (find_def_in _ _ _ Hf) as [Hin Hname].
    destruct (def_group d Hin) as [ul1 [g [ul2 [Hc Hincl]]]]; [rewrite Hname; exact Hnm|].
    destruct (compile_def_inv _ _ _ _ _ _ Hc) as [bty [a [sta [body [st' [_ [Ha [Hwc [-> _]]]]]]]]].
    destruct (fresh_in_vars_inv _ _ _ _ Ha) as [Hfresh [Hused _]]. simpl in Hfresh, Hused.
    pose proof (guard_of d Hin) as Hgd. unfold def_guard in Hgd.
    apply andb_prop in Hgd. destruct Hgd as [Hgd Hkeq]. apply andb_prop in Hgd. destruct Hgd as [Hgd Hkd].
    apply andb_prop in Hgd. destruct Hgd as [Hgd _].
    apply andb_prop in Hgd. destruct Hgd as [Hfr Hws]. apply Bool.eqb_prop in Hkeq.
    exists a, body, sta, st', (compile_ty bty).
    split; [exact Hwc|]. split; [rewrite Hused; left; reflexivity|].
    split; [intros Hb; apply Hfresh; apply (bnd_used_binders p); assumption|].
    split; [intros Hb; apply Hfresh; apply used_binders_mono; exact Hb|].
    split; [intros x Hx; rewrite Hused; right; apply used_binders_mono; exact Hx|].
    split; [intros x Hx; rewrite Hused; right; apply (bnd_used_binders p); assumption|].
    split.
    { intros d' Hd'. apply prog_find. apply Hincl. right. exact Hd'. }
    split.
    { change (new_id (fdname d)) with (cdname (mkcd (new_id (fdname d))
               (compile_ctx (fdctx d) ++ [mkcb (new_id a) CCns (compile_ty (fdret d))]) body)).
      apply prog_find. apply Hincl. left. reflexivity. }
    repeat split; assumption.
  Qed.
End Prog.

(* the entry point of a program that calls main (fix f929eb7):
   def main<n>(params) { main(params, mu~x. exit x) } *)
Lemma nodup_str_NoDup : forall l, nodup_str l = true <-> NoDup l.
Proof.
  induction l as [|x l IH]; simpl.
  - split; [constructor | reflexivity].
  - rewrite andb_true_iff, negb_true_iff, mem_false_not_In, IH. split.
    + intros [A B]. constructor; assumption.
    + intros H. inversion H; subst. split; assumption.
Qed.
Lemma nodup_str_nd0 : forall l, nodup_str l = true -> NoDup l.
Proof. intros l. apply nodup_str_NoDup. Qed.
Definition entry_args (ctx : fctx) : list fterm := map (fun b => FVar (fbvar b) (Some (fbty b)) (Some (fbchi b))) ctx.

Lemma entry_args_compile : forall codata cur ctx st l st',
  subst_with (fun y => cmp codata cur false y) (entry_args ctx) st = Ok (l, st') ->
  l = map arg_of_binding (compile_ctx ctx) /\ st' = st.
Proof.
  intros codata cur. induction ctx as [|b r IH]; intros st l st' H.
  - simpl in H. apply mret_inv in H. destruct H; subst. auto.
  - unfold entry_args in H. cbn [map] in H. fold (entry_args r) in H.
    apply subst_with_cons_inv in H. destruct H as [a [st1 [rest [Ha [Hr ->]]]]].
    destruct b as [v chi ty]. cbn [fbvar fbty fbchi] in Ha.
    apply compile_arg_inv in Ha. destruct Ha as [[v0 [ty1 [ty0 [Ey [Ety [-> ->]]]]]]|[Hn [ty0 [c0 [Ety [Ec ->]]]]]].
    + injection Ey as E1 E2 E3. subst v0 ty1 chi. injection Ety as <-.
      destruct (IH _ _ _ Hr) as [-> ->]. split; reflexivity.
    + destruct chi; [|contradiction]. simpl in Ety. injection Ety as <-.
      rewrite cmp_unfold in Ec. apply cmp_var_inv in Ec. destruct Ec as [ty1 [E1 [-> ->]]]. injection E1 as <-.
      destruct (IH _ _ _ Hr) as [-> ->]. split; reflexivity.
Qed.

Lemma lookups_cons_notin : forall x v ce bs, ~ In x (cvars bs) -> lookups ((x, v) :: ce) bs = lookups ce bs.
Proof.
  intros x v ce bs H. unfold lookups. apply map_ext_in. intros bb Hbb. rewrite clookup_cons.
  assert (E : cident_eqb x (cbvar bb) = false).
  { apply cident_eqb_neq. intros Ex. apply H. rewrite Ex. unfold cvars. apply in_map. exact Hbb. }
  rewrite E. reflexivity.
Qed.
Lemma cbind_lookups_nodup : forall bs vs ce, NoDup (cvars bs) -> cbind (cvars bs) vs [] = Some ce -> lookups ce bs = vs.
Proof.
  induction bs as [|bb r IH]; intros vs ce Hnd H; destruct vs as [|v vr]; simpl in H; try discriminate.
  - reflexivity.
  - unfold cvars in *. simpl in *. destruct (cbind (map cbvar r) vr []) as [e0|] eqn:E; [|discriminate].
    injection H as <-. inversion Hnd as [|? ? Hn Hr]; subst. unfold lookups. cbn [map].
    rewrite clookup_cons, cident_eqb_refl. f_equal. fold (lookups ((cbvar bb, v) :: e0) r).
    rewrite lookups_cons_notin; [apply IH; assumption | exact Hn].
Qed.
Lemma cbind_kinds_prd : forall (bs : list cbinding) vs ce, Forall (fun v => ckind v = CPrd) vs ->
  cbind (cvars bs) vs [] = Some ce ->
  forall bb, In bb bs -> exists b', clookup ce (cbvar bb) = Some b' /\ ckind b' = CPrd.
Proof.
  induction bs as [|b0 r IH]; intros vs ce Hv Hcb bb Hbb; [contradiction|].
  destruct vs as [|v vr]; simpl in Hcb; [discriminate|]. unfold cvars in *. simpl in Hcb.
  destruct (cbind (map cbvar r) vr []) as [e0|] eqn:E; [|discriminate]. injection Hcb as <-.
  inversion Hv as [|? ? Hv1 Hv2]; subst. rewrite clookup_cons.
  destruct (cident_eqb (cbvar b0) (cbvar bb)) eqn:Eq; [exists v; auto|].
  destruct Hbb as [Hbb|Hbb]; [subst bb; rewrite cident_eqb_refl in Eq; discriminate|].
  exact (IH vr e0 Hv2 E bb Hbb).
Qed.
Lemma chi_kind_list_refl : forall l, list_eqb chi_kind_eqb l l = true.
Proof.
  induction l as [|[c k] r IH]; simpl; [reflexivity|]. rewrite IH, andb_true_r. unfold chi_kind_eqb. simpl.
  rewrite Bool.eqb_reflx, andb_true_r. destruct c; reflexivity.
Qed.

(* the entry continuation of main: mu~ x. exit x *)
Definition exit_cont (x : string) (ty : cty) : cterm := CMu CCns (new_id x) (CExit (CXVar CPrd (new_id x) ty) ty) ty.
Lemma exit_cont_fvt : forall x ty bb, ~ In bb (fvt (exit_cont x ty)).
Proof.
  intros x ty bb H. apply fvt_mu_iff in H. destruct H as [H Hne]. apply fvs_exit in H. apply fvt_var in H.
  apply Hne. subst bb. reflexivity.
Qed.
Lemma exit_cont_names : forall x ty y, ~ In y (cnames (fvt (exit_cont x ty))).
Proof. intros x ty y Hy. apply in_cnames_inv in Hy. destruct Hy as [bb [Hb _]]. exact (exit_cont_fvt _ _ _ Hb). Qed.
Lemma exit_cont_shape : forall cp x ty, is_codata cp ty = false -> cont_shape cp false (exit_cont x ty).
Proof.
  intros cp x ty H. split; [reflexivity|]. split; [reflexivity|]. split; [exact H | apply exit_cont_names].
Qed.
(* it stands for the halting continuation of the source machine *)
Lemma exit_cont_KS : forall p cp n x ty ce, KS p cp n false FkHalt (exit_cont x ty) ce.
Proof.
  intros p cp n x ty ce j Hj v pv Hd Hv env Ha.
  destruct j as [|j1]; [apply sim_zero|].
  destruct v as [z|tag fields|cls0 e0|t0 e0]; try contradiction; [|eapply sim_stuck; reflexivity].
  apply vrel_int in Hv. subst pv.
  apply sim_cstep. simpl. apply sim_cstep. simpl.
  rewrite (Ha (new_id x)); [|simpl; left; reflexivity].
  rewrite clookup_cons, cident_eqb_refl. apply sim_cstep. simpl.
  assert (Hs : fstep p (FRet FkHalt (FvInt z)) = FHalt (OExit z)) by reflexivity.
  exact (sim_halt p cp j1 _ _ Hs).
Qed.

(* the entry values: integers on both sides *)
Lemma int_args_dfield : forall args : list Z, Forall dfield (map (fun z => FbP (FvInt z)) args).
Proof. intros args. apply Forall_forall. intros b Hb. apply in_map_iff in Hb. destruct Hb as [z [<- _]]. exact I. Qed.
Lemma int_args_brel : forall p cp n (args : list Z),
  Forall2 (brel p cp n) (map (fun z => FbP (FvInt z)) args) (map (fun z => BP (PInt z)) args).
Proof. intros p cp n args. induction args as [|z r IH]; simpl; constructor; [reflexivity | exact IH]. Qed.

(* Semantic preservation of fun2core for programs that satisfy [prog_guard]: every definition lies in the fragment
   [frag], is well scoped ([ws]) and respects the kind discipline ([kd]).  Binders may shadow names of the
   continuation (the translation names such a continuation first, [guard_capture]).  Every source run that ends in
   a final outcome (normal exit or undefined arithmetic) is reproduced, output and outcome, by the Core machine on
   the translated program.  Any number of definitions, recursion, calls of main, non-tail conditionals and cases
   (shared continuations), data and codata types, labels and goto. *)
Theorem fun2core_correct_fragment_lemma : forall (p : fcprog) (c : cprog) (args : list Z) (n : nat) (o : obs),
  compile_prog p = Ok c ->
  NoDup (map fdname (fcpdefs p)) ->
  prog_guard p = true ->
  run_fun n p args = o -> final o ->
  exists m, run_core m c args = o.
Proof.
  intros p c args n o Hcomp Hnd Hguard Hrun Hfin.
  pose proof (prog_codata p c Hcomp) as Hcod.
  pose proof (prog_callee p c Hcomp Hnd Hguard) as Hcallee.
  unfold run_fun in Hrun.
  destruct (ffind_def p "main") as [d|] eqn:Ed; [|subst o; contradiction Hfin].
  destruct (find_def_in _ _ _ Ed) as [Hin Hname].
  destruct (prog_defs p c Hcomp) as [defs [Hdefs Hcd]].
  destruct (compile_defs_main_head _ _ _ _ _ _ _ _ _ Hdefs Hnd Hin Hname) as [ul1 [g [ul2 [tl [Hm Hres]]]]].
  simpl in Hres. rewrite Hres in Hcd.
  (* what the guard says about main *)
  pose proof (guard_of p Hguard d Hin) as Hgd. unfold def_guard in Hgd.
  assert (Em : String.eqb (fdname d) "main" = true) by (apply String.eqb_eq; exact Hname).
  rewrite Em in Hgd.
  apply andb_prop in Hgd. destruct Hgd as [Hgd Hkeq]. apply andb_prop in Hgd. destruct Hgd as [Hgd Hkd].
  apply andb_prop in Hgd. destruct Hgd as [Hgd Hdt]. apply andb_prop in Hdt. destruct Hdt as [Hdt Hndp].
  apply andb_prop in Hdt. destruct Hdt as [Hdt Hctxd].
  apply andb_prop in Hgd. destruct Hgd as [Hfr Hws].
  destruct (compile_main_group_inv _ _ _ _ _ _ _ Hm) as [[Hcalled Hm']|[Hcalled [nm [e [ule [mg [Hfn [He [Hmd Eg]]]]]]]]].
  { (* main is not called: main itself is the entry point, its continuation is mu~x. exit x *)
    destruct (compile_main_inv _ _ _ _ _ _ Hm') as [bty [x0 [stx [body [st' [Ebty [Hx [Hwc [-> _]]]]]]]]].
    destruct (fresh_in_vars_inv _ _ _ _ Hx) as [Hfresh [Hused _]]. simpl in Hfresh, Hused.
    unfold data_ty in Hdt. rewrite Ebty in Hdt. apply negb_true_iff in Hdt.
    assert (Hkmain : tkind p (fdbody d) = false) by (unfold tkind; rewrite Ebty; exact Hdt).
    unfold run_core. rewrite Hcd. simpl.
    unfold fentry_env in Hrun. unfold centry_env. simpl. rewrite entry_chi.
    destruct (forallb (fun b => match fbchi b with FPrd => true | FCns => false end) (fdctx d)) eqn:Eprd;
      [|exists 0%nat; exact Hrun].
    destruct (fbind (fvars (fdctx d)) (map (fun z => FbP (FvInt z)) args) []) as [e1|] eqn:Ebind;
      [|subst o; contradiction Hfin].
    fold (exit_cont x0 (compile_ty bty)) in Hwc.
    destruct (clause_env p c Hcod n [] (fdctx d) _ _ [] e1 [] (Sof (fvs body))
                (int_args_brel p c n args) (int_args_dfield args) Hctxd Ebind) as [ce1 [Hcb [Hr _]]].
    - intros bb Hgl. simpl in Hgl. discriminate.
    - rewrite Hcb. rewrite app_nil_r in Hr.
      assert (Hsim : sim p c n (FEval (fdbody d) e1 FkHalt) (SNext (Run body ce1))).
      { apply (proj1 (fl_all p c Hcod Hcallee n (fdbody d)) n (Nat.le_refl n) (compile_ctx (fdctx d)) (fdname d) _ stx body st'
                 e1 ce1 FkHalt Hwc Hfr Hkd Hws).
        - intros d' Hd'. apply (prog_find p c Hcomp Hnd). rewrite Hcd. apply in_or_app. left. right. exact Hd'.
        - intros bb Hb. destruct (in_compile_ctx _ _ Hb) as [y [Ey Hy]]. exists y. split; [exact Ey|].
          rewrite Hused. right. apply used_binders_mono. exact Hy.
        - intros y Hy. rewrite Hused. right. apply (bnd_used_binders p); assumption.
        - intros y Hy. exfalso. exact (exit_cont_names _ _ _ Hy).
        - rewrite Hkmain. apply exit_cont_shape. rewrite (is_codata_compile p c Hcod). exact Hdt.
        - exact Hr.
        - rewrite Hkmain. split.
          + intros bb Hb _. exfalso. exact (exit_cont_fvt _ _ _ Hb).
          + intros _. apply exit_cont_KS. }
      destruct (Hsim [] o Hrun Hfin) as [m Hm0]. exists m. exact Hm0.
  }
  (* main is called: the entry point calls main with the exit continuation *)
    simpl in Hcalled. rewrite andb_true_r in Hcalled. subst g.
    rewrite Hcalled in Hndp. simpl in Hndp.
    destruct (compile_main_inv _ _ _ _ _ _ He) as [bty [x0 [stx [body [st' [Ebty [Hx [Hwc [-> _]]]]]]]]].
    cbn [entry_fdef fdbody fterm_type fdctx fdname] in Ebty, Hwc. injection Ebty as <-.
    rewrite wc_unfold in Hwc. apply wc_call_inv in Hwc. destruct Hwc as [args' [ret0 [Hargs [Eret Es]]]].
    injection Eret as <-. subst body. fold (entry_args (fdctx d)) in Hargs.
    destruct (entry_args_compile _ _ _ _ _ _ Hargs) as [-> ->].
    assert (Hdt' : f_is_codata p (fdret d) = false).
    { apply Bool.eqb_prop in Hkeq. rewrite <- Hkeq. unfold tkind. unfold data_ty in Hdt.
      destruct (fterm_type (fdbody d)) as [bty|]; [|reflexivity]. simpl. apply negb_true_iff in Hdt. exact Hdt. }
    fold (exit_cont x0 (compile_ty (fdret d))).
    unfold run_core. rewrite Hcd. simpl.
    unfold fentry_env in Hrun. unfold centry_env. simpl. rewrite entry_chi.
    destruct (forallb (fun b => match fbchi b with FPrd => true | FCns => false end) (fdctx d)) eqn:Eprd;
      [|exists 0%nat; exact Hrun].
    destruct (fbind (fvars (fdctx d)) (map (fun z => FbP (FvInt z)) args) []) as [e1|] eqn:Ebind;
      [|subst o; contradiction Hfin].
    pose proof (int_args_dfield args) as Hdf.
    destruct (kinds_of_fields p c Hcod (fdctx d) _ _ _ Hdf Hctxd Ebind) as [Hk1 Hk2].
    destruct (erel_binds p c n [] (fdctx d) (fun _ => True) (fun _ => True) _ _ [] [] e1
                (int_args_brel p c n args) Hk2 Hk1 Ebind) as [ce1 [Hcb _]].
    { intros bb Hgl. simpl in Hgl. discriminate. }
    { intros x _ _. exact I. }
    rewrite Hcb.
    (* the parameters, looked up by name, are the entry values *)
    assert (Hndc : NoDup (cvars (compile_ctx (fdctx d)))).
    { unfold cvars, compile_ctx. rewrite map_map. change (fun x => cbvar (compile_binding x)) with (fun x => new_id (fbvar x)).
      rewrite <- (map_map fbvar new_id). apply FinFun.Injective_map_NoDup; [intros a b; apply new_id_inj|].
      apply nodup_str_nd0. exact Hndp. }
    pose proof (cbind_lookups_nodup _ _ _ Hndc Hcb) as Hlk.
    assert (Hvs : Forall (fun v => ckind v = CPrd) (map (fun z => BP (PInt z)) args)).
    { apply Forall_forall. intros v Hv. apply in_map_iff in Hv. destruct Hv as [z [<- _]]. reflexivity. }
    assert (Hprd : forall b0, In b0 (fdctx d) -> fbchi b0 = FPrd /\ f_is_codata p (fbty b0) = false).
    { intros b0 Hb0. unfold ctx_data in Hctxd. rewrite forallb_forall in Hctxd. specialize (Hctxd b0 Hb0).
      apply andb_prop in Hctxd. destruct Hctxd as [Hc1 Hc2]. apply negb_true_iff in Hc2.
      split; [destruct (fbchi b0); [reflexivity | discriminate] | exact Hc2]. }
    assert (Hkinds : forall bb, In bb (compile_ctx (fdctx d)) ->
              exists b', clookup ce1 (cbvar bb) = Some b' /\ ckind b' = cbchi bb).
    { intros bb Hbb.
      destruct (cbind_kinds_prd _ _ _ Hvs Hcb bb Hbb) as [b' [E1 E2]]. exists b'. split; [exact E1|]. rewrite E2.
      unfold compile_ctx in Hbb. apply in_map_iff in Hbb. destruct Hbb as [b0 [<- Hb0]]. simpl.
      rewrite (proj1 (Hprd b0 Hb0)). reflexivity. }
    assert (Hsim : sim p c n (FEval (fdbody d) e1 FkHalt)
              (SNext (Run (CCall (new_id "main") (map arg_of_binding (compile_ctx (fdctx d)) ++ [CConsumer (exit_cont x0 (compile_ty (fdret d)))])
                             (compile_ty (fdret d))) ce1))).
    { apply (sim_fstep_inv p c n (FArgs (rev_append (map (fun z => FbP (FvInt z)) args) []) [] e1 (AfCall "main") FkHalt)).
      { simpl. rewrite rev_append_nil_twice, Ed, Ebind. reflexivity. }
      apply sim_cstep. simpl. rewrite start_args_eq.
      eapply sim_rreach; [|apply (bind_args_run_tail c (compile_ctx (fdctx d)) ce1 _ [] [CConsumer (exit_cont x0 (compile_ty (fdret d)))] Hkinds)].
      rewrite Hlk.
      apply (call_finish p c Hcod Hcallee (S n) (fun N' _ t => proj1 (fl_all p c Hcod Hcallee N' t)) (S n) (le_n _)
               "main" (entry_args (fdctx d)) (Some (fdret d)) e1 ce1 FkHalt (exit_cont x0 (compile_ty (fdret d)))
               (map (fun z => FbP (FvInt z)) args) (map (fun z => BP (PInt z)) args)).
      - right. exact Hcalled.
      - unfold call_kinds. rewrite Ed.
        assert (Emap : map (fun y => (arg_chi y, tkind p y)) (entry_args (fdctx d)) =
                       map (fun b => (fbchi b, f_is_codata p (fbty b))) (fdctx d)).
        { unfold entry_args. rewrite map_map. apply map_ext. intros b. unfold tkind. simpl. destruct (fbchi b); reflexivity. }
        rewrite Emap, chi_kind_list_refl. simpl. apply Bool.eqb_reflx.
      - apply int_args_brel.
      - unfold entry_args. clear -Hk2 Hdf Hprd.
        revert Hdf Hprd. induction Hk2 as [|v b0 vr br Hv Hr IH]; intros Hdf Hprd; [constructor|].
        inversion Hdf as [|? ? Hd1 Hd2]; subst. cbn [map]. constructor.
        + destruct (Hprd b0 (or_introl eq_refl)) as [Hc1 Hc2]. rewrite Hc1. split; [|destruct v; [reflexivity | contradiction]].
          unfold okb, tkind. simpl. rewrite Hc2. destruct v as [v0|k0]; [exact Hd1 | contradiction].
        + apply IH; [exact Hd2 | intros b1 Hb1; apply Hprd; right; exact Hb1].
      - change (f_is_codata_o p (Some (fdret d))) with (f_is_codata p (fdret d)). rewrite Hdt'.
        apply exit_cont_shape. rewrite (is_codata_compile p c Hcod). exact Hdt'.
      - change (f_is_codata_o p (Some (fdret d))) with (f_is_codata p (fdret d)). rewrite Hdt'. apply exit_cont_KS. }
    destruct (Hsim [] o Hrun Hfin) as [m Hm0]. exists m. rewrite Hname. exact Hm0.
Qed.
