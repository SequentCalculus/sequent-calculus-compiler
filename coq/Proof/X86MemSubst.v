(* The two reference-count operations of memory.rs (share_block_n, erase_block) on the ISA semantics:
   the code the model emits, sitting in an image with its labels, runs from its first to just past
   its last instruction and has the pure heap-level effect share_h / erase_h of Proof/X86Exec.v.
   The runs themselves are those of Proof/X86Mem.v (x86_share_*_machine, x86_erase_reg_machine). *)
From Coq Require Import List ZArith NArith String Bool Lia FMapPositive.
From SCC Require Import Base.Sexp Lang.AxSyn Sem.AxSem Model.Backend Model.X86 Sem.X86Sem Generated.Constants
     Proof.X86State Proof.X86Sel Proof.X86Exec.
From SCC Require Proof.X86Mem.
Import ListNotations.
Open Scope Z_scope.

(* Proof/X86Mem.v and Proof/X86Exec.v describe placed code and its execution in the same way *)
Lemma pnth_is_padd pc n : X86Mem.pnth pc n = padd pc n.
Proof. induction n as [|n IH]; [reflexivity|]. cbn [X86Mem.pnth]. rewrite IH, padd_succ. reflexivity. Qed.
Lemma code_at_mem im pc cs : code_at im pc cs -> X86Mem.code_at im pc cs.
Proof. intros H n c Hn. rewrite pnth_is_padd. now apply H. Qed.
Lemma labels_at_mem im pc cs : labels_at im pc cs -> X86Mem.labels_at im pc cs.
Proof. intros H n l Hn. rewrite pnth_is_padd. now apply H. Qed.
Lemma steps_exec im pc s pc' s' : X86Mem.steps im pc s pc' s' -> exec_to im pc s pc' s'.
Proof. induction 1; [apply exec_refl|eapply exec_next; eauto|eapply exec_jump; eauto]. Qed.
Lemma block_heap_addr p : block_ok p -> X86Mem.heap_addr p.
Proof.
  intros (A & H). unfold in_heap in H. apply andb_true_iff in H as [H1 H2]. apply Z.leb_le in H1, H2.
  split; [exact A|]. split; assumption.
Qed.

(* the meaning of share_block_n on the ISA semantics: for a block pointer living in a register or a spill slot *)
Theorem x86_share_ok im pc s sp t n lc p f :
  let code := fst (x_share_block_n t n lc) in
  code_at im pc code -> labels_at im pc code ->
  frame_ok s sp -> loc_ok t -> t <> XR TEMP ->
  lget s sp t = Some p -> (p = 0 \/ block_ok p) -> fits32 (Z.of_N n) = true ->
  rget s FREE = Some f ->
  exists s', exec_to im pc s (padd pc (List.length code)) s' /\
             (heap s', f) = share_h p (Z.of_N n) (heap s, f) /\
             (forall r, r <> TEMP -> rget s' r = rget s r) /\
             stack s' = stack s /\ out s' = out s.
Proof.
  intros code C L F T NT G PB Fn Fr. subst code.
  pose proof (code_at_mem _ _ _ C) as C'. pose proof (labels_at_mem _ _ _ L) as L'.
  assert (Ha : p = 0 \/ X86Mem.heap_addr p) by (destruct PB as [|B]; [now left|right; now apply block_heap_addr]).
  assert (M : exists s', X86Mem.steps im pc s (X86Mem.pnth pc (List.length (fst (x_share_block_n t n lc)))) s' /\
     heap s' = (if p =? 0 then heap s else PM.add (key p) (wrap (X86Mem.hword s p + Z.of_N n)) (heap s)) /\
     (forall r, r <> TEMP -> rget s' r = rget s r) /\ stack s' = stack s /\ out s' = out s).
  { destruct t as [r|q]; cbn [lget loc_ok] in *.
    - destruct (X86Mem.x86_share_reg_machine im pc r n lc s p C' L' G Ha Fn) as (s' & ST & Hh & Rs & Stk & Out).
      exists s'. split; [exact ST|]. split; [exact Hh|]. split; [intros r' _; apply Rs|auto].
    - exact (X86Mem.x86_share_spill_machine im pc q n lc s sp p C' L' F T G Ha Fn). }
  destruct M as (s' & ST & Hh & Rest). exists s'. split; [rewrite <- pnth_is_padd; now apply steps_exec|]. split; [|exact Rest].
  unfold share_h. cbn [fst snd]. rewrite Hh. destruct (p =? 0); reflexivity.
Qed.

Theorem x86_erase_ok im pc s sp t lc p f :
  let code := fst (x_erase_block t lc) in
  code_at im pc code -> labels_at im pc code ->
  frame_ok s sp -> loc_ok t -> t <> XR TEMP -> t <> XR FREE ->
  lget s sp t = Some p -> (p = 0 \/ block_ok p) ->
  rget s FREE = Some f ->
  exists s' f', exec_to im pc s (padd pc (List.length code)) s' /\
             rget s' FREE = Some f' /\
             (heap s', f') = erase_h p (heap s, f) /\
             (forall r, r <> TEMP -> r <> FREE -> rget s' r = rget s r) /\
             stack s' = stack s /\ out s' = out s.
Proof.
  intros code C L F T NT NF G PB Fr. subst code.
  pose proof (code_at_mem _ _ _ C) as C'. pose proof (labels_at_mem _ _ _ L) as L'.
  assert (Ha : p = 0 \/ X86Mem.heap_addr p) by (destruct PB as [|B]; [now left|right; now apply block_heap_addr]).
  assert (M : exists s', X86Mem.steps im pc s (X86Mem.pnth pc (List.length (fst (x_erase_block t lc)))) s' /\
     heap s' = (if p =? 0 then heap s else if X86Mem.hword s p =? 0 then PM.add (key p) f (heap s)
                else PM.add (key p) (wrap (X86Mem.hword s p + -1)) (heap s)) /\
     rget s' FREE = Some (if p =? 0 then f else if X86Mem.hword s p =? 0 then p else f) /\
     (forall r, r <> TEMP -> r <> FREE -> rget s' r = rget s r) /\ stack s' = stack s /\ out s' = out s).
  { destruct t as [r|q]; cbn [lget loc_ok] in *.
    - destruct (X86Mem.x86_erase_reg_machine im pc r lc s p f C' L' G Fr Ha) as (s' & ST & Hh & RF & Rs & Stk & Out).
      exists s'. split; [exact ST|]. split; [exact Hh|]. split; [exact RF|]. split; [intros r' _ Hr; now apply Rs|auto].
    - (* the pointer is first loaded into the scratch register *)
      set (s1 := rset s TEMP (Some p)).
      destruct (X86Mem.x86_erase_reg_machine im (X86Mem.pnth pc 1) TEMP lc s1 p f) as (s' & ST & Hh & RF & Rs & Stk & Out); auto.
      { intros k c Hk. rewrite X86Mem.pnth_add. apply C'. exact Hk. }
      { intros k l Hk. rewrite X86Mem.pnth_add. apply L'. exact Hk. }
      { apply rget_rset_same. }
      { unfold s1. rewrite rget_rset_other by discriminate. exact Fr. }
      exists s'. split; [|split; [exact Hh|split; [exact RF|split; [|auto]]]].
      + eapply X86Mem.steps_next; [apply (C' 0%nat); reflexivity| |exact ST].
        rewrite (step_MOVL_slot im s sp F) by exact T. now rewrite G.
      + intros r N1 N2. rewrite Rs by exact N2. apply rget_rset_other. congruence. }
  destruct M as (s' & ST & Hh & RF & Rest).
  exists s', (if p =? 0 then f else if X86Mem.hword s p =? 0 then p else f).
  split; [rewrite <- pnth_is_padd; now apply steps_exec|]. split; [exact RF|]. split; [|exact Rest].
  unfold erase_h. cbn [fst snd]. rewrite Hh. change (hget (heap s) p) with (X86Mem.hword s p).
  destruct (p =? 0); [reflexivity|]. destruct (X86Mem.hword s p =? 0); reflexivity.
Qed.

Print Assumptions x86_share_ok.
Print Assumptions x86_erase_ok.
