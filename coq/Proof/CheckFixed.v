(* C15 / C12 after the two repairs of /repo:
     fix eb42971  Ty::check_template checks the types written in data/codata declarations completely;
     fix 5b8c76f  Def::check compares the declared return type of `main` with i64.
   (1) Soundness and exactness of the checker WITHOUT the guard [decl_types_wf] (it is a consequence of
       acceptance, Proof/CheckDecls.v): for identifier-like names the checker decides the typing rules.
   (2) Every `main` of an accepted program returns i64 (all programs, no guard) - what C12's guard
       prog_tyguard had to ask separately.
   (3) [old_check_gen true true] is the current checker; the regression statements about
       [old_check_decls] / [old_check_main] (the code before either fix) are by computation on the
       former witnesses (Proof/CheckWitness.v, Proof/CheckArity.v, Proof/Fun2CoreTyRefute.v). *)
From Coq Require Import List ZArith String Bool Permutation.
From SCC Require Import Lang.FunSyn Model.Check Sem.FunTyping Sem.FunNames
  Proof.FunEq Proof.CheckAnn Proof.CheckWitness Proof.CheckBuild Proof.PrintInj Proof.CheckPoly Proof.CheckPolySound
  Proof.CheckPolyProg Proof.CheckPolyComplete Proof.CheckPolyProgC Proof.CheckPolyProof Proof.CheckDecls.
Import ListNotations.
Local Open Scope string_scope.

Theorem check_gen_sound : forall eager p q,
  prog_names_ok p = true -> check_gen eager p = COk q -> has_type p.
Proof.
  intros eager p q Hn H.
  exact (check_gen_sound_poly eager p q Hn (check_gen_decl_types_wf eager p q H) H).
Qed.
Lemma check_sound : forall p q, prog_names_ok p = true -> check p = COk q -> has_type p.
Proof. exact (check_gen_sound true). Qed.
Lemma check_exact : forall p, prog_names_ok p = true -> (has_type p <-> exists q, check p = COk q).
Proof.
  intros p Hn. split.
  - apply check_complete_poly. exact Hn.
  - intros [q Hq]. exact (check_sound p q Hn Hq).
Qed.
Lemma check_decides : forall p, prog_names_ok p = true ->
  (has_type_b p = true -> exists q, check p = COk q) /\ (has_type_b p = false -> exists e, check p = CErr e).
Proof.
  intros p Hn. split.
  - intro H. apply check_complete_poly; assumption.
  - intro H. destruct (check p) as [q|e] eqn:E; [|eauto].
    pose proof (check_sound p q Hn E) as Ht. unfold has_type in Ht. rewrite H in Ht. discriminate.
Qed.
Lemma check_order_independent : forall p p', prog_names_ok p = true -> prog_names_ok p' = true ->
  (has_type p <-> has_type p') -> ((exists q, check p = COk q) <-> (exists q, check p' = COk q)).
Proof.
  intros p p' Hn Hn' H. rewrite <- (check_exact p Hn), <- (check_exact p' Hn'). exact H.
Qed.

(* the checker before fix d524b1f (instance order) was sound as well, and what it accepted is still accepted *)
Lemma check_before_fix_sound : forall p q, prog_names_ok p = true -> check_before_fix p = COk q ->
  has_type p /\ exists q', check p = COk q'.
Proof.
  intros p q Hn H. pose proof (check_gen_sound false p q Hn H) as Ht.
  split; [exact Ht|]. apply check_complete_poly; assumption.
Qed.

Lemma main_ret_check_ok : forall d st st', main_ret_check d st = COk st' -> main_ret_ok d = true.
Proof.
  intros d st st' H. unfold main_ret_check in H. unfold main_ret_ok.
  destruct (String.eqb (fdname d) "main"); [|reflexivity].
  unfold check_equality in H. apply cbind_ok in H. destruct H as [s1 [_ H]].
  apply cbind_ok in H. destruct H as [s2 [_ H]].
  destruct (fty_eqb FI64 (fdret d)) eqn:E; [|discriminate].
  apply fty_eqb_eq in E. rewrite <- E. reflexivity.
Qed.
Lemma check_defs_gen_main : forall eager ds st ds' st',
  check_defs_gen eager ds st = COk (ds', st') -> forallb main_ret_ok ds' = true.
Proof.
  intros eager ds. induction ds as [|d r IH]; intros st ds' st' H.
  - simpl in H. inversion H. reflexivity.
  - apply run_defs_cons in H. destruct H as (d' & st1 & r' & H1 & H2 & ->). simpl.
    rewrite (IH _ _ _ H2), andb_true_r.
    apply run_def in H1. destruct H1 as (s1 & s2 & s3 & b' & _ & _ & _ & Hm & _ & ->).
    apply main_ret_check_ok in Hm. exact Hm.
Qed.
(* all programs, no guard: in the checked program every definition named `main` returns i64 *)
Theorem check_gen_main_i64 : forall eager p q,
  check_gen eager p = COk q -> forallb main_ret_ok (fcpdefs q) = true.
Proof.
  intros eager p q H. apply run_check in H. destruct H as (st & defs & st1 & das & cos & _ & _ & Hd & _ & ->). simpl.
  eapply check_defs_gen_main. exact Hd.
Qed.
Corollary check_main_i64 : forall p q d,
  check p = COk q -> In d (fcpdefs q) -> fdname d = "main" -> fdret d = FI64.
Proof.
  intros p q d H Hin Hn. pose proof (check_gen_main_i64 true p q H) as Hm.
  rewrite forallb_forall in Hm. specialize (Hm d Hin). unfold main_ret_ok in Hm.
  rewrite Hn in Hm. simpl in Hm. apply fty_eqb_eq in Hm. exact Hm.
Qed.
(* a `main` of another type is rejected with the type-mismatch diagnostic; the former witness of C12's finding *)
Definition p_main_nonint : fprog :=
  mkfprog [FDData (mkfdata "Bar" [] [mkfctor "B" []]);
           FDDef (mkfdef "main" [] (FDecl "Bar" []) (FCtor "B" [] None))].
Lemma main_nonint_rejected :
  check p_main_nonint = CErr EMismatch /\ has_type_b p_main_nonint = false /\ prog_names_ok p_main_nonint = true
  /\ exists q, old_check_main p_main_nonint = COk q.
Proof. split; [vm_compute; reflexivity|]. split; [vm_compute; reflexivity|]. split; [vm_compute; reflexivity|]. eexists. vm_compute. reflexivity. Qed.

Lemma old_check_defs_current : forall ds st, old_check_defs true ds st = check_defs ds st.
Proof.
  unfold check_defs. induction ds as [|d r IH]; intros st; [reflexivity|]. simpl.
  unfold def_check_gen, old_def_check, check_term.
  destruct (ctx_no_dups (fdctx d)) as [[]|e]; simpl; [|reflexivity].
  destruct (ctx_check (fdctx d) st) as [s1|e]; simpl; [|reflexivity].
  destruct (ty_check (fdret d) s1) as [s2|e]; simpl; [|reflexivity].
  destruct (main_ret_check d s2) as [s3|e]; simpl; [|reflexivity].
  destruct (check_term_gen true (fdbody d) s3 (fdctx d) (fdret d)) as [[b' s4]|e]; simpl; [|reflexivity].
  rewrite IH. reflexivity.
Qed.
Lemma old_check_gen_current : forall p, old_check_gen true true p = check p.
Proof.
  intros p. unfold old_check_gen, check, check_gen, check_with_table_gen.
  destruct (build_symbol_table p) as [st|e]; simpl; [|reflexivity].
  destruct (check_type_decls (fpdecls p) st) as [[]|e]; simpl; [|reflexivity].
  rewrite old_check_defs_current. reflexivity.
Qed.
