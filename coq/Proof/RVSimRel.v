(* C08, forward simulation of the RISC-V code generator: the state relation between a
   configuration of the linear AxCut machine (Sem/AxSem.exec_linear) and a state of Sem/RVSem.v.
   Environment position i owns the registers 4+2i (first temporary) and 5+2i (second temporary); there
   are no spill slots, so a context has at most 14 variables.
     - an integer (binding `ext i64`): the second register holds it (the first one is not constrained);
     - a closure without captured variables (binding `cns T`): the first register holds the null block
       pointer, the second one the address of the closure's code (`CL`, fixed in Proof/RVSimClo.v).
   X2 (HEAP) and X3 (FREE) are defined; X1 (scratch), X10/X11 when they are not owned by a live position
   and the heap are not constrained.  The back-end independent lemmas about environments, `bind`,
   `lookups`, the fragments (`stmt_int`, `stmt_cf`, ...) are those of Proof/SimFrag.v, used qualified.
   This file holds the definitions `vrep` and `rrel` that statements of Props/C08.v mention. *)
From Coq Require Import List ZArith NArith String Bool Lia FMapPositive.
From SCC Require Import Base.Sexp Lang.AxSyn Sem.AxSem Model.ParMoves Model.Backend Model.RV Sem.RVSem Sem.RVWf
     Model.Linearize Model.LinCheck Generated.Constants Proof.LinBasics
     Proof.RVSel Proof.SubstGraph Proof.SubstBackends Proof.RVSubst Proof.RVSimAddr Proof.BackendInv.
From SCC Require Proof.X86SimRel Proof.X86SimStmt.
Import ListNotations.
Open Scope Z_scope.
Open Scope list_scope.

(* the names under which the RVH* / RVK* files and Props/C08.v reach Proof/SimFrag.v *)
Module XR := SCC.Proof.X86SimRel.
Module XS := SCC.Proof.X86SimStmt.

Notation rvt := (variable_temporary rv_backend Snd).
Notation rcs := (code_statement rv_backend).

Lemma rtpos_val n i t : rtpos n i = Ok t -> t = pos_reg n i /\ (i < 14)%nat.
Proof.
  unfold tpos, pos_reg. cbn [b_temporary_from_position rv_backend]. unfold temporary_from_position.
  change RESERVED with 4%N. change REGISTER_NUM with 32%N.
  destruct (N.ltb_spec (2 * N.of_nat i + tnum_n n + 4) 32) as [L|L]; [|discriminate].
  intros E; inversion E. split; [reflexivity|]. destruct n; cbn [tnum_n] in L; lia.
Qed.
Lemma rtpos_lt n i : (i < 14)%nat -> rtpos n i = Ok (pos_reg n i).
Proof.
  intros L. unfold tpos, pos_reg. cbn [b_temporary_from_position rv_backend]. unfold temporary_from_position.
  change RESERVED with 4%N. change REGISTER_NUM with 32%N.
  destruct (N.ltb_spec (2 * N.of_nat i + tnum_n n + 4) 32) as [L'|L']; [reflexivity|]. destruct n; cbn [tnum_n] in L'; lia.
Qed.
Lemma rtpos_neq n i t n' i' t' : rtpos n i = Ok t -> rtpos n' i' = Ok t' -> (n, i) <> (n', i') -> t <> t'.
Proof.
  intros H H' NE E. subst t'. destruct (tpos_inj rv_backend rv_backend_ok _ _ _ _ _ H H') as [-> ->]. now apply NE.
Qed.
Lemma rtpos_regs n i t : rtpos n i = Ok t -> t <> ZERO /\ t <> TEMP /\ t <> HEAP /\ t <> FREE.
Proof. intros H. apply four_le. eapply rtpos_ok; eauto. Qed.

Lemma rvt_of_nth c c' i b :
  NoDup (ids (c ++ c')) -> nth_error c i = Some b -> rvt (c ++ c') (idn (bvar b)) = rtpos Snd i.
Proof.
  intros ND H. apply vt_tpos; auto. rewrite nth_error_app1; auto. apply nth_error_Some. congruence.
Qed.
Lemma rvt_of_nth0 c i b : NoDup (ids c) -> nth_error c i = Some b -> rvt c (idn (bvar b)) = rtpos Snd i.
Proof. intros ND H. now apply vt_tpos. Qed.
Lemma nth_error_mid {X} (a : list X) x b : nth_error (a ++ x :: b) (List.length a) = Some x.
Proof. apply nth_error_app_at. Qed.
Lemma rvt_fresh c b t :
  NoDup (ids (c ++ [b])) -> rvt (c ++ [b]) (idn (bvar b)) = Ok t -> rtpos Snd (List.length c) = Ok t.
Proof. intros ND H. rewrite <- H. symmetry. apply vt_tpos; auto. apply nth_error_mid. Qed.

Section Rel.
(* what a closure's code pointer points to: (address, type name, clauses) *)
Variable CL : Z -> ident -> list clause -> Prop.

Inductive vrep (s : rstate) (i : nat) : binding -> value -> Prop :=
| vrep_int b z t :
    bchi b = Ext -> bty b = I64 -> rtpos Snd i = Ok t -> rget s t = Some z -> vrep s i b (VInt z)
| vrep_clo b tn cls a t1 t2 :
    bchi b = Cns -> bty b = Decl tn ->
    rtpos Fst i = Ok t1 -> rtpos Snd i = Ok t2 -> rget s t1 = Some 0 -> rget s t2 = Some a ->
    CL a tn cls -> vrep s i b (VClo tn cls []).

Record rrel (c : ctx) (e : env) (s : rstate) : Prop := mk_rrel {
  rr_heap : exists h, rget s HEAP = Some h;
  rr_free : exists f, rget s FREE = Some f;
  rr_ids : env_ids e = ids c;
  rr_nodup : NoDup (ids c);
  rr_vals : forall i x v, nth_error e i = Some (x, v) -> exists b, nth_error c i = Some b /\ vrep s i b v
}.

Lemma rr_length c e s : rrel c e s -> List.length e = List.length c.
Proof.
  intros R. pose proof (rr_ids _ _ _ R) as H. apply (f_equal (@List.length N)) in H.
  unfold env_ids, ids in H. now rewrite !map_length in H.
Qed.
(* every position of a related environment has registers: at most 14 variables *)
Lemma rr_cap c e s : rrel c e s -> (List.length c <= 14)%nat.
Proof.
  intros R. pose proof (rr_length _ _ _ R) as LEN. destruct (Nat.le_gt_cases (List.length c) 14) as [L|L]; [exact L|exfalso].
  destruct (nth_error e 14) as [[x v]|] eqn:He; [|apply nth_error_None in He; lia].
  destruct (rr_vals _ _ _ R 14%nat x v He) as (b & _ & V). inversion V; subst.
  - match goal with H : rtpos Snd 14 = Ok _ |- _ => apply rtpos_val in H; lia end.
  - match goal with H : rtpos Snd 14 = Ok _ |- _ => apply rtpos_val in H; lia end.
Qed.

Lemma vrep_keep s s' i b v :
  (forall n t, allowed n b -> rtpos n i = Ok t -> rget s' t = rget s t) -> vrep s i b v -> vrep s' i b v.
Proof.
  intros K V. destruct V as [b z t A B T L|b tn cls a t1 t2 A B T1 T2 L1 L2 C].
  - eapply vrep_int; eauto. rewrite (K Snd _ (or_introl eq_refl) T). exact L.
  - assert (AL : forall n, allowed n b) by (intros n; right; congruence).
    eapply vrep_clo; eauto; [now rewrite (K _ _ (AL Fst) T1)|now rewrite (K _ _ (AL Snd) T2)].
Qed.
Lemma vrep_kind s i b b' v : bchi b' = bchi b -> bty b' = bty b -> vrep s i b v -> vrep s i b' v.
Proof.
  intros K T V. destruct V as [b z t A B T0 L|b tn cls a t1 t2 A B T1 T2 L1 L2 C].
  - eapply vrep_int; eauto; congruence.
  - eapply vrep_clo; eauto; congruence.
Qed.

(* reading an operand: the machine's lookup and the generator's variable_temporary meet *)
Lemma rr_lookup c e s a x :
  rrel c e s -> lookup_int e a = Some x ->
  exists i b t, nth_error c i = Some b /\ idn (bvar b) = idn a /\ rtpos Snd i = Ok t /\ rget s t = Some x.
Proof.
  intros R H. unfold lookup_int, lookup_id in H. destruct (AxSem.lookup e (idn a)) as [[z| |]|] eqn:L; try discriminate.
  inversion H; subst z. destruct (SimFrag.lookup_nth e (idn a) (VInt x) L) as (i & y & Hn & Hy).
  destruct (SimFrag.env_ctx_nth c e i y _ (rr_ids _ _ _ R) Hn) as (b & Hb & Eb).
  destruct (rr_vals _ _ _ R i y _ Hn) as (b' & Hb' & V). assert (b' = b) by congruence. subst b'.
  inversion V; subst. exists i, b, t. repeat split; auto. congruence.
Qed.
Lemma rr_operand c e s a x ta :
  rrel c e s -> lookup_int e a = Some x -> rvt c (idn a) = Ok ta -> rget s ta = Some x /\ (4 <= ta)%N.
Proof.
  intros R LA TA. destruct (rr_lookup c e s a x R LA) as (i & bi & ti & Hi & Ei & Ti & Vi).
  rewrite <- Ei, (rvt_of_nth0 c i bi (rr_nodup _ _ _ R) Hi), Ti in TA. inversion TA; subst ti.
  split; [exact Vi|eapply rtpos_ok; eauto].
Qed.
Lemma rr_operand_app c c' e s a x ta :
  rrel c e s -> NoDup (ids (c ++ c')) -> lookup_int e a = Some x -> rvt (c ++ c') (idn a) = Ok ta ->
  rget s ta = Some x /\ exists i, (i < List.length c)%nat /\ rtpos Snd i = Ok ta.
Proof.
  intros R ND LA TA. destruct (rr_lookup c e s a x R LA) as (i & bi & ti & Hi & Ei & Ti & Vi).
  rewrite <- Ei, (rvt_of_nth c c' i bi ND Hi), Ti in TA. inversion TA; subst ti.
  split; [exact Vi|]. exists i. split; [apply nth_error_Some; congruence|exact Ti].
Qed.

Lemma rr_keep c e s s' :
  rrel c e s -> rget s' HEAP = rget s HEAP -> rget s' FREE = rget s FREE ->
  (forall i b n t, nth_error c i = Some b -> allowed n b -> rtpos n i = Ok t -> rget s' t = rget s t) ->
  rrel c e s'.
Proof.
  intros R HP FR K. destruct R as [Hp Fr Ids ND Vals]. split; auto.
  - now rewrite HP.
  - now rewrite FR.
  - intros i x v Hn. destruct (Vals i x v Hn) as (b & Hb & V). exists b. split; [exact Hb|].
    eapply vrep_keep; [|exact V]. intros n t AL T. apply (K i b n t); auto.
Qed.
Lemma rr_push c e s s' b v :
  rrel c e s -> NoDup (ids (c ++ [b])) ->
  (forall r, (forall n, rtpos n (List.length c) = Ok r -> False) -> r <> TEMP -> rget s' r = rget s r) ->
  vrep s' (List.length c) b v ->
  rrel (c ++ [b]) (e ++ [(bvar b, v)]) s'.
Proof.
  intros R ND K V. pose proof (rr_length _ _ _ R) as LEN. destruct R as [Hp Fr Ids ND0 Vals].
  assert (KR : forall r, (r = HEAP \/ r = FREE) -> rget s' r = rget s r).
  { intros r Hr. apply K.
    - intros n H. apply rtpos_regs in H. destruct Hr; subst; tauto.
    - destruct Hr; subst; discriminate. }
  split.
  - rewrite KR by auto. exact Hp.
  - rewrite KR by auto. exact Fr.
  - unfold env_ids, ids in *. rewrite !map_app, Ids. reflexivity.
  - exact ND.
  - intros i x w Hn. destruct (Nat.lt_ge_cases i (List.length e)) as [L|L].
    + rewrite nth_error_app1 in Hn by exact L. destruct (Vals i x w Hn) as (b0 & Hb & V0).
      exists b0. split; [rewrite nth_error_app1 by lia; exact Hb|].
      eapply vrep_keep; [|exact V0]. intros n t0 _ T0. apply K.
      * intros n' T'. destruct (tpos_inj rv_backend rv_backend_ok _ _ _ _ _ T0 T') as [_ E]. lia.
      * apply rtpos_regs in T0. tauto.
    + rewrite nth_error_app2 in Hn by exact L. destruct (i - List.length e)%nat as [|k] eqn:Kk; cbn in Hn; [|destruct k; discriminate].
      inversion Hn; subst. exists b. split.
      * rewrite nth_error_app2 by lia. replace (i - List.length c)%nat with O by lia. reflexivity.
      * replace i with (List.length c) by lia. exact V.
Qed.

Lemma rr_prefix c0 b e0 ev s : rrel (c0 ++ [b]) (e0 ++ [ev]) s -> rrel c0 e0 s.
Proof.
  intros R. pose proof (rr_length _ _ _ R) as LEN. rewrite !app_length in LEN. cbn [List.length] in LEN.
  destruct R as [Hp Fr Ids ND Vals]. split; auto.
  - unfold env_ids, ids in *. rewrite !map_app in Ids. cbn [map] in Ids. apply app_inj_tail in Ids. tauto.
  - unfold ids in *. rewrite map_app in ND. clear -ND. induction (map (fun b => idn (bvar b)) c0) as [|x a IH]; cbn in *; [constructor|].
    inversion ND; subst. constructor; auto. intros I. apply H1. apply in_app_iff. now left.
  - intros i x v Hi. assert (Li : (i < List.length e0)%nat) by (apply nth_error_Some; congruence).
    destruct (Vals i x v) as (b' & Hb' & V); [rewrite nth_error_app1 by exact Li; exact Hi|].
    exists b'. split; [|exact V]. rewrite nth_error_app1 in Hb' by lia. exact Hb'.
Qed.

Lemma rr_last c0 b e0 x v s : rrel (c0 ++ [b]) (e0 ++ [(x, v)]) s -> vrep s (List.length c0) b v.
Proof.
  intros R. pose proof (rr_length _ _ _ R) as LEN. rewrite !app_length in LEN. cbn [List.length] in LEN.
  assert (L0 : List.length e0 = List.length c0) by lia.
  destruct (rr_vals _ _ _ R (List.length e0) x v (nth_error_mid _ _ _)) as (b0 & Hb0 & V).
  rewrite L0, nth_error_mid in Hb0. inversion Hb0; subst b0. now rewrite <- L0.
Qed.

(* Call: relabelling by a context of the same kinds *)
Lemma rr_bind c e st (c' : ctx) e' :
  rrel c e st -> NoDup (ids c') -> sig_match c c' = true ->
  bind (vars c') (map snd e) = Some e' -> rrel c' e' st.
Proof.
  intros R ND SM BD. pose proof (rr_length _ _ _ R) as LE. destruct R as [Hp Fr Ids ND0 Vals]. split; auto.
  - unfold env_ids. rewrite <- (map_map fst idn), (SimFrag.bind_ids _ _ _ BD). unfold vars, ids. now rewrite map_map.
  - intros i x v Hi. destruct (SimFrag.bind_nth _ _ _ _ _ _ BD Hi) as (_ & Hv).
    rewrite nth_error_map in Hv. destruct (nth_error e i) as [[y w]|] eqn:He; [|discriminate]. cbn in Hv. inversion Hv; subst w.
    destruct (Vals i y v He) as (b & Hb & V). destruct (SimFrag.sig_match_nth c c' i b SM Hb) as (b' & Hb' & K & T).
    exists b'. split; [exact Hb'|]. apply (vrep_kind st i b b' v); [congruence|congruence|exact V].
Qed.
End Rel.
Arguments rr_heap {CL c e s}.
Arguments rr_free {CL c e s}.
Arguments rr_ids {CL c e s}.
Arguments rr_nodup {CL c e s}.
Arguments rr_vals {CL c e s}.
Arguments rr_length {CL c e s}.
Arguments rr_cap {CL c e s}.

Lemma arg_reg_inj i j : arg_reg i = arg_reg j -> i = j.
Proof. unfold arg_reg. lia. Qed.
Lemma fold_args_other r : forall (l : list (nat * Z)) m, (forall ia, In ia l -> r <> arg_reg (fst ia)) ->
  PM.find (N.succ_pos r) (fold_left (fun m (ia : nat * Z) => PM.add (N.succ_pos (arg_reg (fst ia))) (snd ia) m) l m)
  = PM.find (N.succ_pos r) m.
Proof.
  induction l as [|ia l IH]; intros m H; cbn [fold_left]; [reflexivity|]. rewrite IH by (intros; apply H; now right).
  apply PM.gso. intros E. apply succ_pos_inj in E. apply (H ia); [now left|exact E].
Qed.
Lemma init_regs_other args : forall r, (forall i, (i < List.length args)%nat -> r <> arg_reg i) -> r <> 0%N ->
  rget (init_state args) r =
  if N.eqb r HEAP then Some HEAP_BASE else if N.eqb r FREE then Some (HEAP_BASE + field_offset Fst FIELDS_PER_BLOCK) else None.
Proof.
  intros r NA NZ. unfold init_state, rget. destruct (N.eqb_spec r 0); [contradiction|]. cbn [regs].
  rewrite fold_args_other.
  - destruct (N.eqb_spec r HEAP) as [->|NH]; [apply PM.gss|]. rewrite PM.gso by (intros E; apply succ_pos_inj in E; congruence).
    destruct (N.eqb_spec r FREE) as [->|NF]; [apply PM.gss|]. rewrite PM.gso by (intros E; apply succ_pos_inj in E; congruence). apply PM.gempty.
  - intros [i a] Hin. cbn [fst]. apply NA. apply in_combine_l in Hin. apply in_seq in Hin. lia.
Qed.
Lemma init_regs_arg args : forall i a, nth_error args i = Some a -> rget (init_state args) (arg_reg i) = Some a.
Proof.
  intros i a Hi. unfold init_state, rget. assert (NZ : arg_reg i <> 0%N) by (unfold arg_reg; change RESERVED with 4%N; lia).
  destruct (N.eqb_spec (arg_reg i) 0); [contradiction|]. cbn [regs].
  generalize (PM.add (N.succ_pos HEAP) HEAP_BASE (PM.add (N.succ_pos FREE) (HEAP_BASE + field_offset Fst FIELDS_PER_BLOCK) (PM.empty Z))).
  assert (G : forall (l : list Z) k m, nth_error l (i - k) = Some a -> (k <= i)%nat ->
            PM.find (N.succ_pos (arg_reg i)) (fold_left (fun m (ia : nat * Z) => PM.add (N.succ_pos (arg_reg (fst ia))) (snd ia) m)
               (combine (seq k (List.length l)) l) m) = Some a).
  { induction l as [|x l IH]; intros k m Hn Hk; [destruct (i - k)%nat; discriminate|].
    cbn [List.length seq combine fold_left fst snd]. destruct (Nat.eq_dec k i) as [->|NE].
    - rewrite Nat.sub_diag in Hn. cbn in Hn. inversion Hn; subst x.
      rewrite fold_args_other; [apply PM.gss|]. intros [j y] Hin E. apply arg_reg_inj in E. cbn [fst] in E.
      apply in_combine_l in Hin. apply in_seq in Hin. lia.
    - apply IH; [|lia]. replace (i - k)%nat with (S (i - S k)) in Hn by lia. exact Hn. }
  intros m. apply (G args O m); [rewrite Nat.sub_0_r; exact Hi|lia].
Qed.

Lemma entry_rrel CL c0 args e0 :
  bind (vars c0) (map VInt args) = Some e0 -> NoDup (ids c0) -> SimFrag.ctx_int c0 = true -> (List.length args <= 14)%nat ->
  rrel CL c0 e0 (init_state args).
Proof.
  intros BD ND CI LE.
  assert (NA : forall r, (r = HEAP \/ r = FREE) -> forall i, (i < List.length args)%nat -> r <> arg_reg i).
  { intros r Hr i _. unfold arg_reg. change RESERVED with 4%N. change HEAP with 2%N in Hr. change FREE with 3%N in Hr. lia. }
  split.
  - exists HEAP_BASE. rewrite init_regs_other; [reflexivity|apply NA; auto|discriminate].
  - eexists. rewrite init_regs_other; [reflexivity|apply NA; auto|discriminate].
  - unfold env_ids. rewrite <- (map_map fst idn), (SimFrag.bind_ids _ _ _ BD). unfold vars, ids. now rewrite map_map.
  - exact ND.
  - intros i x v Hi. destruct (SimFrag.bind_nth _ _ _ _ _ _ BD Hi) as (Hx & Hv).
    rewrite nth_error_map in Hv. destruct (nth_error args i) as [a|] eqn:Ha; [|discriminate]. cbn in Hv. inversion Hv; subst v.
    unfold vars in Hx. rewrite nth_error_map in Hx. destruct (nth_error c0 i) as [b|] eqn:Hb; [|discriminate].
    assert (Li : (i < List.length args)%nat) by (apply nth_error_Some; congruence).
    destruct (SimFrag.ctx_int_nth c0 i b CI Hb) as (K & T).
    exists b. split; [reflexivity|].
    apply (vrep_int CL _ i b a (pos_reg Snd i) K T); [apply rtpos_lt; lia|].
    replace (pos_reg Snd i) with (arg_reg i) by (unfold pos_reg, arg_reg; cbn [tnum_n]; lia).
    now apply init_regs_arg.
Qed.
