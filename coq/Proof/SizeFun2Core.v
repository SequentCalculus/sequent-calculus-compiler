(* C19, fun2core: the size of the translation of ONE definition body (wc / cmp), every term form, no
   fragment.  For a list U of bindings containing the typed occurrences of the term,
       L = |U| + 2,   Q = 6 + (2 + k) * L,
       |wc t cont| + lifted + 2 <= Q * |t| + |cont|        |cmp t ty| + lifted <= Q * |t|
   in the measure cz k of Core (k = weight of a clause-context entry) and fz k of Fun.
   Why it is linear in |t|: a continuation is used twice or more only by `if` and multi-clause `case`,
   and then it is either small (<= 3 nodes) or replaced by `share` with a call of size 2 + n, n = the
   number of free bindings of the continuation (+1), which is at most L by the free-variable inclusion
   (Proof/SizeFun2CoreFv.v) and the duplicate-freeness of typed_free_vars; the lifted definition costs
   the continuation once more plus its n parameters. *)
From Coq Require Import List ZArith NArith String Bool Lia Sorted.
From SCC Require Import Base.Sexp Lang.SynUtil Lang.FunSyn Lang.FunTy Lang.CoreSyn Lang.AxSize.
From SCC Require Import Model.Fun2Core Model.SizeFun Proof.Fun2CoreProof Proof.Fun2CoreTfv Proof.Fun2CoreInv
     Proof.SizeLin Proof.SizeGen Proof.SizeFun2CoreFv.
Import ListNotations.
Open Scope string_scope.
Open Scope list_scope.
Open Scope N_scope.
Local Arguments N.add : simpl never.
Local Arguments N.mul : simpl never.
Local Arguments len : simpl never.

Lemma bsorted_NoDup : forall s, bsorted s -> NoDup s.
Proof.
  intros s H. induction H as [|a r Hr IH Hall]; constructor; [|exact IH].
  intros Hin. rewrite Forall_forall in Hall. exact (blt_irrefl a (Hall a Hin)).
Qed.
Lemma fvs_len : forall s (l : list cbinding), incl (fvs s) l -> len (fvs s) <= len l.
Proof.
  intros s l H. pose proof (NoDup_incl_length (bsorted_NoDup _ (fvs_sorted s)) H). unfold len. lia.
Qed.
Lemma flat_map_incl : forall {X Y} (f : X -> list Y) l U, incl (flat_map f l) U -> Forall (fun y => incl (f y) U) l.
Proof.
  intros X Y f l U. induction l as [|y r IH]; intros H; constructor.
  - intros z Hz. apply H. simpl. apply in_or_app. left. exact Hz.
  - apply IH. intros z Hz. apply H. simpl. apply in_or_app. right. exact Hz.
Qed.
Lemma nsum_cons : forall {X} (f : X -> N) x r, nsum f (x :: r) = f x + nsum f r.
Proof. reflexivity. Qed.

Section SZ.
  Variable codata : list ctydecl.
  Variable cur : string.
  Variable k : N.
  Variable U : list cbinding.
  Notation wc' := (wc codata cur false).
  Notation cmp' := (cmp codata cur false).
  Notation zt := (cz_term k).
  Notation za := (cz_arg k).
  Notation zc := (cz_clause k).
  Notation zs := (cz_stmt k).

  (* L: the most parameters a lifted definition has (the bindings of U, the variable `share` introduces, one more of
     the continuation); Q: what one source node may cost - the dearest is an `if` or multi-clause `case` that shares its
     continuation: two calls of size <= 2 + L and, besides the continuation itself, 3 + kL for the lifted definition
     (share_size).  L, kL, Q, P are names of this file's bound only; they stay visible after the section *)
  Definition L : N := len U + 2.
  Definition kL : N := k * L.
  Definition Q : N := 6 + 2 * L + kL.
  Definition lz (st : cstate) : N := cz_defs k (st_lifted st).
  Definition P (t : fterm) : N := fz k t * Q.
  Definition PL (l : list fterm) : N := nsum (fz k) l * Q.
  Definition PC (l : list fclause) : N := nsum (fz_clause k) l * Q.

  Lemma L_ge : 2 <= L. Proof. unfold L. lia. Qed.
  Lemma k_le_kL : k <= kL.
  Proof. unfold kL. pose proof L_ge. rewrite <- (N.mul_1_r k) at 1. apply N.mul_le_mono_l. lia. Qed.
  (* `pose proof Q_eq` in the proofs below shows lia what Q is without unfolding it in the goal *)
  Lemma Q_eq : Q = 6 + 2 * L + kL. Proof. reflexivity. Qed.
  Lemma mulQ_ge : forall x, x <= x * Q.
  Proof. intros x. rewrite <- (N.mul_1_r x) at 1. apply N.mul_le_mono_l. unfold Q. lia. Qed.
  Lemma k_mul_le : forall n, n <= L -> k * n <= kL.
  Proof. intros n H. unfold kL. apply N.mul_le_mono_l. exact H. Qed.

  (* P per constructor *)
  Lemma P_pos : forall t, Q <= P t.
  Proof.
    intros t. unfold P. rewrite <- (N.mul_1_l Q) at 1. apply N.mul_le_mono_r. destruct t; cbn [fz]; lia.
  Qed.
  Lemma P_var : forall v ty chi, P (FVar v ty chi) = Q. Proof. intros. unfold P. cbn [fz]. lia. Qed.
  Lemma P_lit : forall n, P (FLit n) = Q. Proof. intros. unfold P. cbn [fz]. lia. Qed.
  Lemma P_op : forall a o b, P (FOp a o b) = Q + P a + P b. Proof. intros. unfold P. cbn [fz]. lia. Qed.
  Lemma P_ifc : forall s a b t e ty, P (FIfC s a b t e ty) = Q + P a + match b with Some b' => P b' | None => 0 end + P t + P e.
  Proof. intros. unfold P. cbn [fz]. destruct b; lia. Qed.
  Lemma P_print : forall nl a next ty, P (FPrint nl a next ty) = Q + P a + P next. Proof. intros. unfold P. cbn [fz]. lia. Qed.
  Lemma P_let : forall v vty a b ty, P (FLet v vty a b ty) = Q + P a + P b. Proof. intros. unfold P. cbn [fz]. lia. Qed.
  Lemma P_call : forall f args r, P (FCall f args r) = Q + PL args. Proof. intros. unfold P, PL. cbn [fz]. lia. Qed.
  Lemma P_ctor : forall f args r, P (FCtor f args r) = Q + PL args. Proof. intros. unfold P, PL. cbn [fz]. lia. Qed.
  Lemma P_dtor : forall s x ta args r, P (FDtor s x ta args r) = Q + P s + PL args. Proof. intros. unfold P, PL. cbn [fz]. lia. Qed.
  Lemma P_case : forall s ta cls r, P (FCase s ta cls r) = Q + P s + PC cls. Proof. intros. unfold P, PC. cbn [fz]. fold (fz_clause k). lia. Qed.
  Lemma P_new : forall cls r, P (FNew cls r) = Q + PC cls. Proof. intros. unfold P, PC. cbn [fz]. fold (fz_clause k). lia. Qed.
  Lemma P_label : forall l t ty, P (FLabel l t ty) = Q + P t. Proof. intros. unfold P. cbn [fz]. lia. Qed.
  Lemma P_goto : forall l t ty, P (FGoto l t ty) = Q + P t. Proof. intros. unfold P. cbn [fz]. lia. Qed.
  Lemma P_exit : forall t ty, P (FExit t ty) = Q + P t. Proof. intros. unfold P. cbn [fz]. lia. Qed.
  Lemma P_paren : forall t, P (FParen t) = Q + P t. Proof. intros. unfold P. cbn [fz]. lia. Qed.
  Lemma PL_nil : PL [] = 0. Proof. reflexivity. Qed.
  Lemma PL_cons : forall y r, PL (y :: r) = P y + PL r. Proof. intros. unfold PL, P. rewrite nsum_cons. lia. Qed.
  Lemma PC_nil : PC [] = 0. Proof. reflexivity. Qed.
  Lemma PC_cons : forall pl x names ctx body r,
    PC (FClause pl x names ctx body :: r) = Q + (k * len ctx) * Q + P body + PC r.
  Proof. intros. unfold PC, P. rewrite nsum_cons. cbn [fz_clause]. lia. Qed.

  (* continuations: consumers whose free bindings are, up to one, in U *)
  Definition cok (cont : cterm) : Prop := cont_cns cont /\ exists e, incl (fvt cont) (e :: U).
  Lemma cok_var : forall c v ty, cok (CXVar c v ty).
  Proof.
    intros c v ty. split; [exact I|]. exists (mkcb v c ty). intros bb Hb. apply fvt_var in Hb. left. symmetry. exact Hb.
  Qed.
  Lemma cok_sub : forall c c0, cont_cns c -> cok c0 ->
    (forall bb, In bb (fvt c) -> In bb U \/ In bb (fvt c0)) -> cok c.
  Proof.
    intros c c0 Hc [_ [e He]] H. split; [exact Hc|]. exists e. intros bb Hb.
    destruct (H bb Hb) as [Hu|Hu]; [right; exact Hu | apply He; exact Hu].
  Qed.

  Lemma small_size : forall cont, cont_is_small cont = true -> zt cont <= 3.
  Proof.
    intros cont H. destruct cont as [| | | c v s ty | |]; try discriminate; cbn [cz_term].
    destruct s as [| | | |a ty']; try discriminate. destruct a; try discriminate; cbn [cz_stmt cz_term]; lia.
  Qed.

  Lemma cz_args_bindings : forall bs, cz_args k (map arg_of_binding bs) = len bs.
  Proof.
    induction bs as [|b r IH]; [reflexivity|]. cbn [map cz_args]. rewrite IH, len_cons.
    unfold arg_of_binding. destruct (cbchi b); cbn [cz_arg cz_term]; lia.
  Qed.

  Lemma share_nonmu : forall cont st x stv ty body e,
    fresh_var st = Ok (x, stv) -> body = CCut (CXVar CPrd (new_id x) ty) ty cont -> incl (fvt cont) (e :: U) ->
    len (fvs body) <= L /\ lz stv = lz st /\ zs body <= 2 + zt cont.
  Proof.
    intros cont st x stv ty body e Hf Hbody He. apply fresh_in_vars_inv in Hf. destruct Hf as (_ & _ & _ & Hf).
    split; [|split; [unfold lz; rewrite Hf; reflexivity | subst body; cbn [cz_stmt cz_term]; lia]].
    apply N.le_trans with (len (mkcb (new_id x) CPrd ty :: e :: U)); [|rewrite !len_cons; unfold L; lia].
    apply fvs_len. subst body. intros bb Hb. apply fvs_cut in Hb. destruct Hb as [Hb|Hb].
    - apply fvt_var in Hb. left. symmetry. exact Hb.
    - right. apply He. exact Hb.
  Qed.

  (* `share`: the continuation is replaced by a call of size 2 + n <= 2 + L; the lifted definition
     costs the continuation once more, 3 nodes and its n parameters *)
  Lemma share_size : forall cont st k1 st', share cur cont st = Ok (k1, st') -> cok cont ->
    cok k1 /\ zt k1 <= 2 + L /\ lz st' <= lz st + 3 + kL + zt cont.
  Proof.
    intros cont st k1 st' H [Hc [e He]].
    destruct (share_fvt cur _ _ _ _ H Hc) as [Hc1 Hsub].
    split; [split; [exact Hc1|]; exists e; intros bb Hb; apply He; apply Hsub; exact Hb|].
    destruct (share_inv _ _ _ _ _ H) as [var [ty [body [stv [name [Hm [Hv [Hl Hk]]]]]]]].
    assert (Hn : len (fvs body) <= L /\ lz stv = lz st /\ zs body <= 2 + zt cont).
    { destruct cont as [c v t|n|a o b|c v s t|c x args t|c cls t];
        try (destruct Hm as [xx [Hf [Hvar [Hty Hbody]]]]; eapply share_nonmu; eauto).
      destruct Hm as [Hvar [Hty [Hbody Hst]]]. subst. simpl in Hc. subst c.
      split; [|split; [reflexivity | cbn [cz_term]; lia]].
      apply N.le_trans with (len (mkcb v CPrd t :: e :: U)); [|rewrite !len_cons; unfold L; lia].
      apply (fvs_len s (mkcb v CPrd t :: e :: U)). intros bb Hb.
      destruct (cbinding_eqb bb (mkcb v CPrd t)) eqn:Eb.
      - apply cbinding_eqb_eq in Eb. left. symmetry. exact Eb.
      - right. apply He. apply fvt_mu_iff. split; [exact Hb|]. intros E. subst bb.
        simpl in Eb. rewrite (proj2 (cbinding_eqb_eq _ _) eq_refl) in Eb. discriminate. }
    destruct Hn as (Hn & Hlz & Hb). subst k1. split.
    - cbn [cz_term]. rewrite cz_stmt_call, cz_args_bindings. fold (fvs body). lia.
    - unfold lz at 1. rewrite Hl. cbn [cz_defs]. unfold cz_def. cbn [cdctx cdbody]. fold (fvs body). fold (lz stv).
      pose proof (k_mul_le _ Hn). lia.
  Qed.

  Definition szw (t : fterm) : Prop :=
    forall cont st s st', wc' t cont st = Ok (s, st') -> cok cont -> incl (tocc t) U ->
      zs s + lz st' + 2 <= lz st + P t + zt cont.
  Definition szc (t : fterm) : Prop :=
    forall ty st c st', cmp' t ty st = Ok (c, st') -> incl (tocc t) U -> zt c + lz st' <= lz st + P t.

  Lemma fresh_covar_lz : forall st a sta, fresh_covar st = Ok (a, sta) -> lz sta = lz st.
  Proof. intros st a sta H. apply fresh_in_vars_inv in H. destruct H as (_ & _ & _ & H). unfold lz. rewrite H. reflexivity. Qed.

  Lemma sz_default : forall (w : cterm -> M cstmt) X,
    (forall cont st s st', w cont st = Ok (s, st') -> cok cont -> zs s + lz st' + 2 <= lz st + X + zt cont) ->
    forall ty st c st', default_compile w ty st = Ok (c, st') -> zt c + lz st' <= lz st + X.
  Proof.
    intros w X Hw ty st c st' H. apply default_compile_inv in H. destruct H as [a [sta [s [Ha [Hs Hc]]]]]. subst c.
    apply fresh_covar_lz in Ha. pose proof (Hw _ _ _ _ Hs (cok_var _ _ _)) as Hi. cbn [cz_term] in *. lia.
  Qed.

  (* the repaired placement of a continuation under binders (fix d5d4151): < mu a. w(a) | cont > costs 3
     more nodes than w(a), a being 1 node *)
  Lemma sz_guard : forall binders (w : cterm -> M cstmt) lty X,
    (forall cont st s st', w cont st = Ok (s, st') -> cok cont -> zs s + lz st' + 2 + 3 <= lz st + X + zt cont) ->
    forall cont st s st', guard_capture false binders w lty cont st = Ok (s, st') -> cok cont ->
      zs s + lz st' + 2 <= lz st + X + zt cont.
  Proof.
    intros binders w lty X Hw cont st s st' H Hc. apply guard_capture_inv in H.
    destruct H as [[_ H]|[_ [ty0 [a [sta [s0 [_ [Ha [_ [H ->]]]]]]]]]].
    - pose proof (Hw _ _ _ _ H Hc). lia.
    - apply fresh_covar_lz in Ha. pose proof (Hw _ _ _ _ H (cok_var _ _ _)) as Hi. cbn [cz_stmt cz_term] in *. lia.
  Qed.

  Lemma sz_args : forall args, Forall szc args ->
    forall st l st', subst_with (fun y => cmp' y) args st = Ok (l, st') -> incl (flat_map occ_arg args) U ->
    cz_args k l + lz st' <= lz st + PL args.
  Proof.
    intros args H. induction H as [|y r Hy Hr IH]; intros st l st' Hs Hi.
    - simpl in Hs. apply mret_inv in Hs. destruct Hs; subst. cbn [cz_args]. rewrite PL_nil. lia.
    - apply subst_with_cons_inv in Hs. destruct Hs as [a [st1 [rest [Ha [Hrest Hl]]]]]. subst l.
      cbn [flat_map] in Hi. apply incl_app_inv in Hi. destruct Hi as [Hi1 Hi2].
      pose proof (IH _ _ _ Hrest Hi2) as Hr'. rewrite PL_cons. cbn [cz_args].
      apply compile_arg_inv in Ha. destruct Ha as [[v [ty [ty0 [Ey [Ety [Ea Est]]]]]]|[Hn [ty0 [c [Ety [Ec Ea]]]]]].
      + subst. cbn [cz_arg cz_term]. rewrite P_var. pose proof Q_eq. lia.
      + subst a. cbn [cz_arg]. assert (E : occ_arg y = tocc y).
        { unfold occ_arg, occ_arg_with. destruct y; try reflexivity. destruct chi as [[|]|]; try reflexivity. contradiction. }
        rewrite E in Hi1. pose proof (Hy _ _ _ _ Ec Hi1). lia.
  Qed.

  (* one clause of a `case`, any continuation *)
  Lemma sz_clause : forall x ctx body cont st c st', szw body ->
    compile_clause x ctx (fun co => wc' body co) cont st = Ok (c, st') -> cok cont -> incl (tocc body) U ->
    zc c + lz st' + 1 <= lz st + (k * len ctx) * Q + P body + zt cont.
  Proof.
    intros x ctx body cont st c st' Hb H Hc Hi. apply compile_clause_inv in H. destruct H as [body' [Hbody Ec]]. subst c.
    pose proof (Hb _ _ _ _ Hbody Hc Hi). cbn [cz_clause]. unfold compile_ctx. rewrite len_map.
    pose proof (mulQ_ge (k * len ctx)). lia.
  Qed.
  (* all clauses against a continuation that is small or shared *)
  Lemma sz_clauses : forall cont1 cls, Forall (fun c => szw (clause_body c)) cls -> cok cont1 -> zt cont1 <= Q + 1 ->
    forall st l st', clauses_with (fun b => wc' b) cont1 cls st = Ok (l, st') -> incl (flat_map cl_occ cls) U ->
    cz_clauses k l + lz st' <= lz st + PC cls.
  Proof.
    intros cont1 cls H Hc Hz. induction H as [|c r Hy Hr IH]; intros st l st' Hs Hi.
    - simpl in Hs. apply mret_inv in Hs. destruct Hs; subst. cbn [cz_clauses]. rewrite PC_nil. lia.
    - destruct c as [pl x names ctx body]. apply clauses_with_cons_inv in Hs.
      destruct Hs as [c' [st1 [rest [Ha [Hrest Hl]]]]]. subst l.
      cbn [flat_map cl_occ] in Hi. apply incl_app_inv in Hi. destruct Hi as [Hi1 Hi2].
      pose proof (IH _ _ _ Hrest Hi2) as Hr'. rewrite PC_cons. cbn [cz_clauses].
      pose proof (sz_clause _ _ _ _ _ _ _ Hy Ha Hc Hi1) as Hcl. cbn [clause_body] in Hcl. lia.
  Qed.

  Lemma sz_coclauses : forall cls, Forall (fun c => szw (clause_body c)) cls ->
    forall st l st', coclauses_with (fun b => wc' b) cls st = Ok (l, st') -> incl (flat_map cl_occ cls) U ->
    cz_clauses k l + lz st' <= lz st + PC cls.
  Proof.
    intros cls H. induction H as [|c r Hy Hr IH]; intros st l st' Hs Hi.
    - simpl in Hs. apply mret_inv in Hs. destruct Hs; subst. cbn [cz_clauses]. rewrite PC_nil. lia.
    - destruct c as [pl x names ctx body]. apply coclauses_with_cons_inv in Hs.
      destruct Hs as [c' [st1 [rest [Ha [Hrest Hl]]]]]. subst l.
      cbn [flat_map cl_occ] in Hi. apply incl_app_inv in Hi. destruct Hi as [Hi1 Hi2].
      pose proof (IH _ _ _ Hrest Hi2) as Hr'. rewrite PC_cons. cbn [cz_clauses].
      apply compile_coclause_inv in Ha. destruct Ha as [ty0 [a [sta [body' [Ety [Hfr [Hbody Ec]]]]]]]. subst c'.
      apply fresh_covar_lz in Hfr. simpl in Hy. pose proof (Hy _ _ _ _ Hbody (cok_var _ _ _) Hi1) as Hb.
      cbn [cz_clause cz_term] in *. rewrite len_app, len_cons, len_nil. unfold compile_ctx. rewrite len_map.
      pose proof (mulQ_ge (k * len ctx)). pose proof k_le_kL. pose proof Q_eq. lia.
  Qed.

  (* free bindings of translated argument lists / clause lists are in U *)
  Lemma args_in_U : forall args st l st', subst_with (fun y => cmp' y) args st = Ok (l, st') ->
    incl (flat_map occ_arg args) U -> forall bb, In bb (fva l) -> In bb U.
  Proof.
    intros args st l st' Hs Hi bb Hb. apply Hi. eapply occ_args; eauto.
    apply Forall_forall. intros y _. apply occ_cmp.
  Qed.

  (* a value form is cut against the continuation: its compile has 3 units to spare *)
  Definition szc3 (t : fterm) : Prop :=
    forall ty st c st', cmp' t ty st = Ok (c, st') -> incl (tocc t) U -> zt c + lz st' + 3 <= lz st + P t.
  Definition szC (t : fterm) : Prop := szc t /\ (value_form t = true -> szc3 t).
  Lemma szc3_C : forall t, szc3 t -> szC t.
  Proof. intros t H. split; [|intros _; exact H]. intros ty st c st' Hc Hi. pose proof (H _ _ _ _ Hc Hi). lia. Qed.
  Lemma szc_C : forall t, value_form t = false -> szc t -> szC t.
  Proof. intros t Hv H. split; [exact H|]. rewrite Hv. discriminate. Qed.
  Lemma szC_args : forall args, Forall szC args -> Forall szc args.
  Proof. intros args H. eapply Forall_impl; [|exact H]. intros a Ha. apply Ha. Qed.

  Lemma sz_both_spare : forall t, szw t /\ szC t.
  Proof.
    apply (wc_cmp_ind szw szC).
    - intros t Hv [_ C3] cont st s st' H Hc Hi. destruct (wc_value_form _ _ _ _ _ _ _ _ Hv H) as [c [Hcmp ->]].
      pose proof (C3 Hv CI64 _ _ _ (Hcmp CI64) Hi). cbn [cz_stmt]. lia.
    - intros t Hs Hw. apply szc_C; [destruct t; try discriminate Hs; reflexivity|].
      intros ty st c st' H Hi. rewrite (cmp_stmt_form _ _ _ _ _ Hs) in H.
      eapply sz_default; [|exact H]. intros cont st0 s0 st0' Hs0 Hc. eapply Hw; eauto.
    - (* FVar *)
      intros v ty chi. apply szc3_C. intros ty0' st c st' H Hi. rewrite cmp_unfold in H. apply cmp_var_inv in H.
      destruct H as [ty0 [Ety [Es Est]]]. subst. rewrite P_var. cbn [cz_term]. pose proof Q_eq. lia.
    - (* FLit *)
      intros n. apply szc3_C. intros ty0' st c st' H Hi. rewrite cmp_unfold in H. unfold cmp_lit in H.
      apply mret_inv in H. destruct H; subst. rewrite P_lit. cbn [cz_term]. pose proof Q_eq. lia.
    - (* FOp *)
      intros t1 o t2 [C1 _] [C2 _]. apply szc3_C. intros ty0' st c st' H Hi. rewrite cmp_unfold in H. apply cmp_op_inv in H.
      destruct H as [a [st1 [b [Ha [Hb' Ec]]]]]. subst c. cbn [tocc] in Hi. apply incl_app_inv in Hi. destruct Hi as [Hi1 Hi2].
      pose proof (C1 _ _ _ _ Ha Hi1). pose proof (C2 _ _ _ _ Hb' Hi2). rewrite P_op. cbn [cz_term]. pose proof Q_eq. lia.
    - (* FIfC *)
      intros s t1 b t2 t3 ty [C1 _] Cb W2 W3 cont st s0 st' H0 Hc Hi. rewrite wc_unfold in H0. apply wc_ifc_inv in H0.
      destruct H0 as [cont1 [st0 [a [sta [b' [stb [t [stt [e [Hsh [Ha [Hbb [Ht [He Er]]]]]]]]]]]]]]. subst s0.
      cbn [tocc] in Hi. apply incl_app_inv in Hi. destruct Hi as [Hi1 Hi]. apply incl_app_inv in Hi. destruct Hi as [Hib Hi].
      apply incl_app_inv in Hi. destruct Hi as [Hi2 Hi3].
      assert (Hc1 : cok cont1 /\ lz st0 + 2 * zt cont1 <= lz st + 7 + 2 * L + kL + zt cont).
      { destruct (cont_is_small cont) eqn:Hsm.
        - destruct Hsh; subst. split; [exact Hc|]. pose proof (small_size _ Hsm). lia.
        - destruct (share_size _ _ _ _ Hsh Hc) as (A & B & C). split; [exact A|]. lia. }
      destruct Hc1 as [Hc1 Hz].
      pose proof (C1 _ _ _ _ Ha Hi1) as Sa.
      pose proof (W2 _ _ _ _ Ht Hc1 Hi2) as St.
      pose proof (W3 _ _ _ _ He Hc1 Hi3) as Se.
      rewrite P_ifc. cbn [cz_stmt]. pose proof Q_eq.
      destruct b as [b0|].
      + destruct Hbb as [b1 [Hb1 Eb]]. subst b'. simpl in Cb. destruct Cb as [Cb _].
        pose proof (Cb _ _ _ _ Hb1 Hib). lia.
      + destruct Hbb as [Eb Est]. subst b' stb. lia.
    - (* FPrint *)
      intros nl t1 t2 ty [C1 _] W2 cont st s0 st' H0 Hc Hi. rewrite wc_unfold in H0. apply wc_print_inv in H0.
      destruct H0 as [a [st1 [next [Ha [Hn Es]]]]]. subst s0.
      cbn [tocc] in Hi. apply incl_app_inv in Hi. destruct Hi as [Hi1 Hi2].
      pose proof (C1 _ _ _ _ Ha Hi1). pose proof (W2 _ _ _ _ Hn Hc Hi2). rewrite P_print. cbn [cz_stmt]. pose proof Q_eq. lia.
    - (* FLet *)
      intros v vty t1 t2 ty W1 [C1 _] W2 cont st s0 st' H0 Hc Hi. rewrite wc_unfold in H0.
      revert cont st s0 st' H0 Hc. apply sz_guard.
      intros cont st s0 st' H0 Hc.
      cbn [tocc] in Hi. apply incl_app_inv in Hi. destruct Hi as [Hi1 Hi2]. rewrite P_let. pose proof Q_eq. pose proof L_ge.
      assert (Hk : forall body st1, wc' t2 cont st = Ok (body, st1) -> cok (CMu CCns (new_id v) body (compile_ty vty))).
      { intros body st1 Hbody. apply (cok_sub _ cont); [reflexivity | exact Hc|].
        intros bb Hb. apply fvt_mu_iff in Hb. destruct Hb as [Hb _].
        destruct (occ_wc codata cur t2 _ _ _ _ Hbody (proj1 Hc) bb Hb) as [Hg|Hg]; [left; apply Hi2; exact Hg | right; exact Hg]. }
      destruct (ty_is_codata codata (compile_ty vty)) eqn:Hcd.
      + apply wc_let_inv_codata in H0; [|exact Hcd]. destruct H0 as [body [st1 [pb [Hbody0 [Hpb Es]]]]]. subst s0.
        pose proof (W2 _ _ _ _ Hbody0 Hc Hi2). pose proof (C1 _ _ _ _ Hpb Hi1). cbn [cz_stmt cz_term]. lia.
      + apply wc_let_inv in H0; [|exact Hcd]. destruct H0 as [body [st1 [Hbody0 Hbound]]].
        pose proof (W2 _ _ _ _ Hbody0 Hc Hi2). pose proof (W1 _ _ _ _ Hbound (Hk _ _ Hbody0) Hi1) as Hb.
        cbn [cz_term] in Hb. lia.
    - (* FCall *)
      intros f args ret HA cont st s0 st' H0 Hc Hi. apply szC_args in HA. rewrite wc_unfold in H0. apply wc_call_inv in H0.
      destruct H0 as [args' [ret0 [Hargs [Eret Es]]]]. subst s0. cbn [tocc] in Hi. fold occ_arg in Hi.
      pose proof (sz_args args HA _ _ _ Hargs Hi). rewrite P_call, cz_stmt_call, cz_args_app. cbn [cz_args cz_arg].
      pose proof Q_eq. lia.
    - (* FCtor *)
      intros x args ty HA. apply szC_args in HA. apply szc3_C.
      intros ty0' st c st' H0 Hi. rewrite cmp_unfold in H0. apply cmp_ctor_inv in H0.
      destruct H0 as [args' [ty0 [Hargs [Ety Ec]]]]. subst c. cbn [tocc] in Hi. fold occ_arg in Hi.
      pose proof (sz_args args HA _ _ _ Hargs Hi). rewrite P_ctor, cz_term_xtor. pose proof Q_eq. lia.
    - (* FDtor *)
      intros t x targs args ty Ws HA cont st s0 st' H0 Hc Hi. apply szC_args in HA. rewrite wc_unfold in H0. apply wc_dtor_inv in H0.
      destruct H0 as [args' [st1 [sty0 [Hargs [Esty Hscrut]]]]].
      cbn [tocc] in Hi. fold occ_arg in Hi. apply incl_app_inv in Hi. destruct Hi as [Hi1 Hi2].
      pose proof (sz_args args HA _ _ _ Hargs Hi2) as Sa.
      assert (Hk : cok (CXtor CCns (new_id x) (args' ++ [CConsumer cont]) (compile_ty sty0))).
      { apply (cok_sub _ cont); [exact I | exact Hc|]. intros bb Hb. apply fvt_xtor in Hb. apply fva_app in Hb.
        destruct Hb as [Hb|Hb]; [left; eapply args_in_U; eauto|].
        right. apply fva_cons in Hb. destruct Hb as [Hb|Hb]; [exact Hb | apply fva_nil in Hb; contradiction]. }
      pose proof (Ws _ _ _ _ Hscrut Hk Hi1) as Ss. rewrite cz_term_xtor, cz_args_app in Ss. cbn [cz_args cz_arg] in Ss.
      rewrite P_dtor. pose proof Q_eq. lia.
    - (* FCase *)
      intros t targs cls ty Ws HB cont st s0 st' H0 Hc Hi. rewrite wc_unfold in H0.
      revert cont st s0 st' H0 Hc. apply sz_guard.
      intros cont st s0 st' H0 Hc. apply wc_case_inv in H0.
      destruct H0 as [cont1 [st0 [cls' [st1 [sty0 [Hsh [Hcls [Esty Hscrut]]]]]]]].
      cbn [tocc] in Hi. apply incl_app_inv in Hi. destruct Hi as [Hi1 Hi2]. fold cl_occ in Hi2.
      rewrite P_case. pose proof Q_eq as HQ. pose proof L_ge as HL2.
      assert (Hocc : forall cont1, cok cont1 -> forall st0 cls' st1, clauses_with (fun b => wc' b) cont1 cls st0 = Ok (cls', st1) ->
                cok (CXCase CCns cls' (compile_ty sty0))).
      { intros c1 Hc1 sta l stb Hl. apply (cok_sub _ c1); [exact I | exact Hc1|]. intros bb Hb. apply fvt_xcase in Hb.
        destruct (occ_clauses codata cur c1 cls (proj2 (Forall_forall _ _) (fun c _ => occ_wc codata cur (clause_body c))) (proj1 Hc1) _ _ _ Hl bb Hb) as [Hg|Hg];
          [left; apply Hi2; exact Hg | right; exact Hg]. }
      (* the clauses cost PC cls plus what the continuation costs *)
      assert (Hmain : cok cont1 /\ cz_clauses k cls' + lz st1 <= lz st + PC cls + 3 + kL + zt cont).
      { destruct (Nat.leb (List.length cls) 1 || cont_is_small cont) eqn:Hcond.
        - destruct Hsh; subst cont1 st0. split; [exact Hc|].
          destruct (cont_is_small cont) eqn:Hsm.
          + pose proof (small_size _ Hsm). pose proof (sz_clauses cont cls HB Hc ltac:(lia) _ _ _ Hcls Hi2). lia.
          + rewrite orb_false_r in Hcond. destruct cls as [|[pl x names ctx body] [|c2 r]]; [| |discriminate].
            * simpl in Hcls. apply mret_inv in Hcls. destruct Hcls; subst. cbn [cz_clauses]. rewrite PC_nil. lia.
            * apply clauses_with_cons_inv in Hcls. destruct Hcls as [c' [st2 [rest [Ha [Hrest Hl]]]]]. subst cls'.
              simpl in Hrest. apply mret_inv in Hrest. destruct Hrest; subst.
              inversion HB as [|? ? Hy _]; subst. cbn [flat_map cl_occ] in Hi2. rewrite app_nil_r in Hi2.
              pose proof (sz_clause _ _ _ _ _ _ _ Hy Ha Hc Hi2) as Hcl. cbn [clause_body] in Hcl. rewrite PC_cons, PC_nil. cbn [cz_clauses]. lia.
        - destruct (share_size _ _ _ _ Hsh Hc) as (A & B & C). split; [exact A|].
          pose proof (sz_clauses cont1 cls HB A ltac:(lia) _ _ _ Hcls Hi2). lia. }
      destruct Hmain as [Hc1 Hm].
      pose proof (Ws _ _ _ _ Hscrut (Hocc _ Hc1 _ _ _ Hcls) Hi1) as Ss. rewrite cz_term_xcase in Ss. lia.
    - (* FNew *)
      intros cls ty HB. apply szc3_C.
      intros ty0' st c st' H0 Hi. rewrite cmp_unfold in H0. apply cmp_new_inv in H0.
      destruct H0 as [cls' [ty0 [Hcls [Ety Ec]]]]. subst c. cbn [tocc] in Hi. fold cl_occ in Hi.
      pose proof (sz_coclauses cls HB _ _ _ Hcls Hi). rewrite P_new, cz_term_xcase. pose proof Q_eq. lia.
    - (* FLabel *)
      intros l t ty W. apply szc3_C.
      intros ty0' st c st' H0 Hi. rewrite cmp_unfold in H0. apply cmp_label_inv in H0.
      destruct H0 as [ty0 [s0 [Ety [Hs Ec]]]]. subst c ty. cbn [tocc] in Hi.
      pose proof (W _ _ _ _ Hs (cok_var _ _ _) Hi) as Sw. rewrite P_label. cbn [cz_term] in *. pose proof Q_eq. lia.
    - (* FGoto *)
      intros l t ty W cont st s0 st' H0 Hc Hi. rewrite wc_unfold in H0. apply wc_goto_inv in H0.
      destruct H0 as [ty0 [Ety Hs]]. cbn [tocc] in Hi. apply incl_app_inv in Hi. destruct Hi as [_ Hi].
      pose proof (W _ _ _ _ Hs (cok_var _ _ _) Hi) as Sw. rewrite P_goto. cbn [cz_term] in Sw.
      pose proof Q_eq. pose proof (cz_term_pos k cont). lia.
    - (* FExit *)
      intros t ty [C _] cont st s0 st' H0 Hc Hi. rewrite wc_unfold in H0. apply wc_exit_inv in H0.
      destruct H0 as [a [ty0 [Ha [Ety Es]]]]. subst s0. cbn [tocc] in Hi.
      pose proof (C _ _ _ _ Ha Hi). rewrite P_exit. cbn [cz_stmt]. pose proof Q_eq. lia.
    - (* FParen *)
      intros t W [C _]. split; [|apply szc_C; [reflexivity|]].
      + intros cont st s0 st' H0 Hc Hi. rewrite wc_unfold in H0. cbn [tocc] in Hi.
        pose proof (W _ _ _ _ H0 Hc Hi). rewrite P_paren. lia.
      + intros ty0' st c st' H0 Hi. rewrite cmp_unfold in H0. cbn [tocc] in Hi.
        pose proof (C _ _ _ _ H0 Hi). rewrite P_paren. lia.
  Qed.

  Lemma sz_both : forall t, szw t /\ szc t.
  Proof. intros t. destruct (sz_both_spare t) as [W [C _]]. split; assumption. Qed.

  Definition sz_wc (t : fterm) := proj1 (sz_both t).
  Definition sz_cmp (t : fterm) := proj2 (sz_both t).
End SZ.
