(* C08, heap statements: from the invariant of the instrumented machine (InvA of Proof/HeapMore.v, in every
   reachable configuration by C09_program_heap_safe) and the agreement `heq` of Proof/RVHDefs.v to the
   hypotheses of the RISC-V refinement theorems of Proof/RVHMem.v (the counterpart of Proof/X86HBridge.v):
     hdr_bounds_r        headers lie in [0, 2^32]: no 64-bit count wraps;
     acq_ok_of_inv       the precondition of `acquire_block`;
     reach_is_blk        everything reachable from the roots is a block of the heap region.
   The only numeric hypothesis: the frontier leaves room for the reserved block
   (`frontier + 64 <= HEAP_BASE + HEAP_SIZE`).  In front: the list and register facts the simulation files share. *)
From Coq Require Import List ZArith NArith String Bool Lia Permutation.
From SCC Require Import Sem.AxSem Sem.AxHeap Model.Backend Model.RV Sem.RVSem Proof.RVSel Proof.RVSubst Proof.RVSimAddr Proof.RVSimRel
     Proof.RVHeapAbs Proof.RVHDefs Proof.RVHMem.
From SCC Require Model.Heap Proof.HeapMore Proof.HeapTrace Proof.HeapRep Proof.HeapRepAlloc Proof.HeapBridge Proof.X86HBridge Proof.X86HSimStore Proof.X86HSimLoad Proof.X86HSimStmt.
Import ListNotations.
Open Scope Z_scope.

Notation InvA := HeapMore.InvA.
Notation reach := HeapTrace.reach.

(* list and register facts used throughout the simulation files *)
Lemma rtpos_rtp n i t : rtpos n i = Ok t -> t = rtp (2 * N.of_nat i + tnum_n n) /\ (i < 14)%nat.
Proof. intros H. apply rtpos_val in H as [-> L]. split; [apply pos_reg_rtp|exact L]. Qed.

(* the word in the register of temporary position k (0 when undefined) *)
Definition rval (s : rstate) (k : N) : Z := reg_or0 s (rtp k).


Notation roots_length := X86HSimStore.roots_length.
Notation roots_split := X86HSimStore.roots_split.

Notation app_inv_len := X86HSimStore.app_inv_len.
Notation NoDup_app_l := X86HSimStore.NoDup_app_l.

(* the allocator registers are above no position register *)
Lemma pos_reg_special n i : pos_reg n i <> ZERO /\ pos_reg n i <> TEMP /\ pos_reg n i <> HEAP /\ pos_reg n i <> FREE.
Proof. apply four_le. apply pos_reg_reserved. Qed.

Notation nth_error_Some_lt := X86HSimLoad.nth_error_Some_lt.
Notation Forall2_nth := X86HSimLoad.Forall2_nth.
Notation Forall2_len := X86HSimLoad.Forall2_len.

(* pointers attached to an environment *)
Notation attach_nth := X86HSimStmt.attach_nth.
Notation attach_erase := X86HSimStmt.attach_erase.


(* blocks of the abstract heap vs. blocks of the heap region *)
Notation is_blk_blk := X86HBridge.is_blk_blk.
Lemma blk_is_blk x : HeapMore.blk HEAP_BASE x -> x + 64 <= LIMIT -> is_blk x.
Proof. apply X86HBridge.blk_is_blk. Qed.
Notation frontier_blk := X86HBridge.frontier_blk.
Lemma below_is_blk s R hl fl cl x :
  InvA HEAP_BASE s R hl fl cl -> Heap.frontier s <= LIMIT -> HeapMore.blk HEAP_BASE x -> x < Heap.frontier s -> is_blk x.
Proof. apply X86HBridge.below_is_blk. Qed.
Lemma list_is_blk s R hl fl cl x :
  InvA HEAP_BASE s R hl fl cl -> Heap.frontier s <= LIMIT -> In x (hl ++ fl ++ cl) -> is_blk x.
Proof. apply X86HBridge.list_is_blk. Qed.
Lemma reach_is_blk s R hl fl cl b :
  InvA HEAP_BASE s R hl fl cl -> Heap.frontier s <= LIMIT -> reach (Heap.m s) R b -> is_blk b.
Proof. apply X86HBridge.reach_is_blk. Qed.

Definition HB : Z := 4294967296.  (* 2^32 *)
Lemma hdr_bounds_r s R hl fl cl :
  InvA HEAP_BASE s R hl fl cl -> P3 s -> Heap.frontier s <= LIMIT -> Z.of_nat (List.length R) <= 1048576 ->
  forall x, is_blk x -> 0 <= Heap.hdr (Heap.m s x) <= HB.
Proof.
  intros IA HP HF HR x Hx.
  pose proof (HeapBridge.hdr_bounds HEAP_BASE s R hl fl cl IA HP ltac:(unfold HEAP_BASE; lia) x (is_blk_blk x Hx)) as H.
  pose proof (HeapBridge.in_use_bound _ _ _ _ _ _ IA) as U.
  unfold HB, LIMIT, HEAP_BASE, HEAP_SIZE in *. lia.
Qed.

Notation pad3_in := X86HBridge.pad3_in.

Lemma acq_ok_of_inv a s R hl fl cl :
  InvA HEAP_BASE s R hl fl cl -> heq a s -> P3 s -> Heap.frontier s + 64 <= LIMIT -> Z.of_nat (List.length R) <= 1048576 ->
  acq_ok a.
Proof.
  intros IA HQ HP HF HR. pose proof (proj1 IA) as I.
  destruct HQ as (E1 & E2 & E3 & EM).
  destruct (HeapMore.heap_in_hl _ _ _ _ _ I) as (hl1 & Ehl).
  assert (Bh : is_blk (Heap.heap s)).
  { eapply list_is_blk; [exact IA|lia|]. rewrite Ehl. now left. }
  assert (BD : forall x, is_blk x -> min_int + 3 <= Heap.hdr (Heap.m a x) <= max_int).
  { intros x Hx. rewrite (proj1 (EM x Hx)).
    pose proof (hdr_bounds_r s R hl fl cl IA HP ltac:(lia) HR x Hx). unfold HB, min_int, max_int, two63 in *. lia. }
  unfold acq_ok. rewrite E1, E2. split; [exact Bh|].
  assert (Bf : is_blk (Heap.free s)).
  { destruct (HeapRep.free_cases _ _ _ _ _ I) as [[E _]|Hf].
    - rewrite E. apply blk_is_blk; [eapply frontier_blk; eauto|exact HF].
    - eapply list_is_blk; [exact IA|lia|]. rewrite !in_app_iff. auto. }
  split; [apply is_blk_pos in Bf; lia|]. split; [intros _; exact Bf|].
  intros _ Hn0. rewrite (proj1 (EM _ Bf)) in Hn0.
  split; [|split; [exact BD|apply BD; exact Bf]].
  assert (Hfl : In (Heap.free s) fl).
  { destruct (HeapRep.free_cases _ _ _ _ _ I) as [[E _]|Hf]; auto.
    rewrite E, (Heap.i_fresh _ _ _ _ _ I (Heap.frontier s)) in Hn0 by lia. now cbn in Hn0. }
  rewrite (proj2 (EM _ Bf)). apply Forall_forall. intros c Hc.
  destruct (pad3_in _ _ Hc) as [->|Hin]; [now left|].
  destruct (Z.eq_dec c 0) as [->|Hc0]; [now left|right].
  eapply list_is_blk; [exact IA|lia|]. rewrite !in_app_iff. right. right.
  eapply HeapMore.child_counted; [exact I| |exact Hin|exact Hc0]. rewrite in_app_iff. now right.
Qed.
