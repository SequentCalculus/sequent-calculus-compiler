(* C07: a concrete program of the closure fragment (the shape the pipeline produces for a tail-recursive
   integer function: `main` creates the return continuation and calls `f`, which loops and finally invokes
   the continuation; a closure of a codata type with two destructors, entered through its jump table with the
   code pointer in a register (`ADD X9, X9, #4; BR X9`); and, behind 13 integers, closures whose code pointer
   lives in a SPILL SLOT: one with two destructors (`LDR X2; ADD X2, X2, #4; BR X2`) and one with a single
   destructor (`LDR X2; BR X2`); closures dropped by a substitution = erase of a null pointer), on which every
   hypothesis of a64_codegen_simulates_cf is evaluated and both sides computed. *)
From Coq Require Import List ZArith NArith String Bool.
From SCC Require Import Lang.AxSyn Sem.AxSem Model.Backend Model.A64 Sem.A64Sem Sem.A64Wf Model.Linearize
     Model.LinCheck Proof.A64SimRel Proof.A64SimAddr Proof.A64SimExample.
Import ListNotations.
Open Scope string_scope.
Open Scope Z_scope.

Definition cb (s : string) (n : N) (t : string) : binding := mkb (id_ s n) Cns (Decl (id_ t 0)).
Definition ints (s : string) (k : nat) (n : N) : ctx := map (fun i => ib s (n + N.of_nat i)) (seq 0 k).
Definition t_cont : tydecl := mkt (id_ "_Cont" 0) [mkx (id_ "Ret" 0) [ib "x" 0]].
Definition t_two : tydecl := mkt (id_ "Two" 0) [mkx (id_ "A" 0) [ib "x" 0]; mkx (id_ "B" 0) [ib "y" 0; ib "z" 0]].
Definition t_big : tydecl := mkt (id_ "Big" 0) [mkx (id_ "M1" 0) (ints "x" 13 0); mkx (id_ "M2" 0) (ints "y" 13 0)].
Definition t_one : tydecl := mkt (id_ "One" 0) [mkx (id_ "M" 0) (ints "x" 13 0)].

Definition exc_main : def :=
  mkd (id_ "main" 0) [ib "x" 1]
    (Literal 0 (id_ "acc" 6)
    (Create (id_ "a" 7) (Decl (id_ "_Cont" 0)) (Some [])
       [(id_ "Ret" 0, [ib "r" 2], PrintI64 true (id_ "r" 2) (Exit (id_ "r" 2)))]
    (Create (id_ "t" 8) (Decl (id_ "Two" 0)) (Some [])
       [(id_ "A" 0, [ib "p" 9], Exit (id_ "p" 9));
        (id_ "B" 0, [ib "q" 10; ib "r" 11], Op (id_ "q" 10) Prod (id_ "r" 11) (id_ "s" 12) (Exit (id_ "s" 12)))]
    (IfC Lt (id_ "x" 1) None
       (* x < 0: drop both closures, 13 integers, then closures that live in SPILL SLOTS *)
       (Substitute [(ib "x" 1, id_ "x" 1); (ib "acc" 6, id_ "acc" 6)]
       (Literal (-10) (id_ "m" 19)
       (lits 10 20
       (IfC Lt (id_ "x" 1) (Some (id_ "m" 19))
          (Create (id_ "o" 41) (Decl (id_ "One" 0)) (Some [])
             [(id_ "M" 0, ints "p" 13 50, Op (id_ "p" 50) Sub (id_ "p" 62) (id_ "d" 91) (Exit (id_ "d" 91)))]
             (Invoke (id_ "o" 41) (id_ "M" 0) (Decl (id_ "One" 0)) []))
          (Create (id_ "b" 40) (Decl (id_ "Big" 0)) (Some [])
             [(id_ "M1" 0, ints "p" 13 50, Exit (id_ "p" 62));
              (id_ "M2" 0, ints "q" 13 70, Op (id_ "q" 70) Prod (id_ "q" 82) (id_ "s" 90) (PrintI64 false (id_ "s" 90) (Exit (id_ "s" 90))))]
             (Invoke (id_ "b" 40) (id_ "M2" 0) (Decl (id_ "Big" 0)) []))))))
       (IfC Eq (id_ "x" 1) None
          (Literal 7 (id_ "k" 9)
          (Substitute [(ib "q" 10, id_ "x" 1); (ib "r" 11, id_ "k" 9); (cb "t" 8 "Two", id_ "t" 8)]
             (Invoke (id_ "t" 8) (id_ "B" 0) (Decl (id_ "Two" 0)) [])))
          (Substitute [(ib "x" 3, id_ "x" 1); (ib "acc" 4, id_ "acc" 6); (cb "a0" 5 "_Cont", id_ "a" 7); (cb "t0" 6 "Two", id_ "t" 8)]
             (Call (id_ "f" 0) []))))))).
Definition exc_f : def :=
  mkd (id_ "f" 0) [ib "x" 3; ib "acc" 4; cb "a0" 5 "_Cont"; cb "t0" 6 "Two"]
    (IfC Eq (id_ "x" 3) None
       (Substitute [(ib "acc" 4, id_ "acc" 4); (cb "a0" 5 "_Cont", id_ "a0" 5)]
          (Invoke (id_ "a0" 5) (id_ "Ret" 0) (Decl (id_ "_Cont" 0)) []))
       (Literal 1 (id_ "one" 8)
       (Op (id_ "x" 3) Sub (id_ "one" 8) (id_ "x" 9)
       (Op (id_ "acc" 4) Sum (id_ "x" 3) (id_ "y" 10)
       (PrintI64 false (id_ "y" 10)
       (Substitute [(ib "x" 3, id_ "x" 9); (ib "acc" 4, id_ "y" 10); (cb "a0" 5 "_Cont", id_ "a0" 5); (cb "t0" 6 "Two", id_ "t0" 6)]
          (Call (id_ "f" 0) []))))))).
Definition exc_prog : prog := mkp [exc_main; exc_f] [t_cont; t_two; t_big; t_one] 100.
Definition exc_code : list acode :=
  match a64_compile exc_prog 0 with Ok (cs, _, _) => cs | Err _ => [] end.

Lemma exc_hypotheses :
  cf_frag exc_prog = true /\ entry_int exc_prog = true /\ plain_names exc_prog = true /\ plain_types exc_prog = true /\
  lits_i64 exc_prog = true /\ lin_check_prog exc_prog = true /\
  (exists n lc', a64_compile exc_prog 0 = Ok (exc_code, n, lc')) /\ asm_wf exc_code = None /\ code_small exc_code = true.
Proof. repeat apply conj; try (vm_compute; reflexivity). eexists _, _. vm_compute. reflexivity. Qed.

(* the three ways of entering a closure really occur in the emitted code *)
Lemma exc_code_shape :
  filter (fun c => match c with BR _ | ADR _ _ | ADDI (X _) _ _ => true | _ => false end) exc_code =
  [ADDI (X 1) (X 1) 64;                                       (* prologue: FREE *)
   ADR (X 9) "_Cont_1"; ADR (X 11) "Two_2";                   (* create a, create t: code pointers in registers *)
   ADDI (X 9) (X 9) 4; BR (X 9);                              (* invoke t.B: table entry 1, register *)
   ADR (X 2) "Big_15"; ADDI (X 2) (X 2) 4; BR (X 2);          (* create b / invoke b.M2: spilled code pointer, table *)
   ADR (X 2) "One_16"; BR (X 2);                              (* create o / invoke o.M: spilled, one destructor *)
   BR (X 7)].                                                 (* invoke a0.Ret: one destructor, register *)
Proof. vm_compute. reflexivity. Qed.

(* x = 4: f sums 4+3+2+1, printing the partial sums, then returns 10 through the continuation, which prints it;
   x = 0: the closure t is invoked at its second destructor through the jump table: 0 * 7;
   x = -3: 13 integers, then the spilled closure b at its second destructor: -3 * 183;
   x = -30: the spilled single-destructor closure o: -30 - 183 *)
Lemma exc_runs :
  run_linear 100 exc_prog [4] = ([(false, 4); (false, 7); (false, 9); (false, 10); (true, 10)], OExit 10) /\
  fst (run_a64 10 2000 exc_code [4]) = ([(false, 4); (false, 7); (false, 9); (false, 10); (true, 10)], OExit 10) /\
  run_linear 100 exc_prog [0] = ([], OExit 0) /\
  fst (run_a64 10 2000 exc_code [0]) = ([], OExit 0) /\
  run_linear 100 exc_prog [-3] = ([(false, -549)], OExit (-549)) /\
  fst (run_a64 10 2000 exc_code [-3]) = ([(false, -549)], OExit (-549)) /\
  run_linear 100 exc_prog [-30] = ([], OExit (-213)) /\
  fst (run_a64 10 2000 exc_code [-30]) = ([], OExit (-213)).
Proof. repeat apply conj; vm_compute; reflexivity. Qed.

(* an AxCut program BEFORE linearization of the shape `shrink` produces for
     def f(x, acc) { if x == 0 { acc } else { f(x - 1, acc + x) } }   def main(x) { f(x, 0) }
   (main creates the return continuation and passes it; f invokes it); the model of the linearizer inserts the
   substitutions and the (empty) closure environment, and its output meets every AArch64-side hypothesis *)
Definition exc_named : prog :=
  mkp [mkd (id_ "main" 0) [ib "x" 1]
         (Literal 0 (id_ "z" 6)
         (Create (id_ "a" 7) (Decl (id_ "_Cont" 0)) None
            [(id_ "Ret" 0, [ib "r" 2], Exit (id_ "r" 2))]
         (Call (id_ "f" 0) [ib "x" 1; ib "z" 6; cb "a" 7 "_Cont"])));
       mkd (id_ "f" 0) [ib "x" 3; ib "acc" 4; cb "k" 5 "_Cont"]
         (IfC Eq (id_ "x" 3) None
            (Invoke (id_ "k" 5) (id_ "Ret" 0) (Decl (id_ "_Cont" 0)) [ib "acc" 4])
            (Literal 1 (id_ "one" 8)
            (Op (id_ "x" 3) Sub (id_ "one" 8) (id_ "x" 9)
            (Op (id_ "acc" 4) Sum (id_ "x" 3) (id_ "y" 10)
            (Call (id_ "f" 0) [ib "x" 9; ib "y" 10; cb "k" 5 "_Cont"])))))]
      [t_cont] 10.
Definition exc_named_code : list acode :=
  match a64_compile (linearize exc_named) 0 with Ok (cs, _, _) => cs | Err _ => [] end.
Lemma exc_named_hypotheses :
  prog_ok exc_named = true /\ cf_frag (linearize exc_named) = true /\ entry_int (linearize exc_named) = true /\
  plain_names (linearize exc_named) = true /\ plain_types (linearize exc_named) = true /\ lits_i64 (linearize exc_named) = true /\
  (exists n lc', a64_compile (linearize exc_named) 0 = Ok (exc_named_code, n, lc')) /\
  asm_wf exc_named_code = None /\ code_small exc_named_code = true /\
  run_named 100 exc_named [10] = ([], OExit 55) /\
  fst (run_a64 10 2000 exc_named_code [10]) = ([], OExit 55).
Proof. repeat apply conj; try (vm_compute; reflexivity). eexists _, _. vm_compute. reflexivity. Qed.
