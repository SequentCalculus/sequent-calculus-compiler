(* C06, heap statements, shared definitions: how the abstract heap of the instrumented linear machine
   (Sem/AxHeap.v, Model/Heap.v) and the heap words of an x86-64 state are related.

     pad3 / heq      agreement of an abstract state `a` (in practice `abs_heap F s`, whose blocks always
                     have three pointer slots) with the machine's abstract heap `hs` UP TO ZERO PADDING
                     (a block that was never written has `ps = []` in hs and [0;0;0] in abs_heap);
     P3              every block of hs has at most three pointer slots (only `alloc` writes slots, always three);
     wblocks/waddrs  the blocks of a chained object and the addresses of its field slots (pointer word at
                     a, data word at a + 8), read from the heap words w, head block first: a block that
                     is followed by another one holds two fields (16, 32) and the link (48), the last
                     block three fields;
     chain_fresh     the block reserved for the next round of `store_fields` is not one of the blocks
                     already written for this object (follows from the heap invariant: reserved block on
                     the reuse list, written blocks counted). *)
From Coq Require Import List ZArith NArith String Bool Lia.
From SCC Require Import Sem.X86Sem Proof.X86Mem.
From SCC Require Model.Heap.
Import ListNotations.
Open Scope Z_scope.

Definition LIMIT : Z := HEAP_BASE + HEAP_SIZE.

Definition pad3 (l : list Z) : list Z := [nth 0 l 0; nth 1 l 0; nth 2 l 0].

Definition heq (a hs : Heap.st) : Prop :=
  Heap.heap a = Heap.heap hs /\ Heap.free a = Heap.free hs /\ Heap.frontier a = Heap.frontier hs /\
  forall x, is_blk x ->
    Heap.hdr (Heap.m a x) = Heap.hdr (Heap.m hs x) /\ Heap.ps (Heap.m a x) = pad3 (Heap.ps (Heap.m hs x)).

Definition P3 (hs : Heap.st) : Prop := forall x, (List.length (Heap.ps (Heap.m hs x)) <= 3)%nat.

Lemma pad3_len3 l : List.length l = 3%nat -> pad3 l = l.
Proof. destruct l as [|a [|b [|c [|d r]]]]; cbn; intros H; try discriminate; reflexivity. Qed.
Lemma pad3_nil : pad3 [] = [0; 0; 0]. Proof. reflexivity. Qed.
Lemma pad3_nth l i : nth i (pad3 l) 0 = match i with O | S O | S (S O) => nth i l 0 | _ => 0 end.
Proof. destruct i as [|[|[|i]]]; cbn; auto. destruct i; reflexivity. Qed.

Lemma heq_eqB a' a hs : st_eqB a' a -> heq a hs -> heq a' hs.
Proof.
  intros (E1 & E2 & E3 & E4) (H1 & H2 & H3 & H4). split; [congruence|]. split; [congruence|]. split; [congruence|].
  intros x Hx. rewrite (E4 x Hx). now apply H4.
Qed.
Lemma heq_abs_ps F s hs x : heq (abs_heap F s) hs -> is_blk x ->
  pad3 (Heap.ps (Heap.m hs x)) = [hword s (x + 16); hword s (x + 32); hword s (x + 48)] /\ Heap.hdr (Heap.m hs x) = hword s x.
Proof. intros (_ & _ & _ & H) Hx. destruct (H x Hx) as [A B]. split; [now rewrite <- B|now rewrite <- A]. Qed.

(* chains of blocks in the heap words *)
Fixpoint wblocks (k : nat) (w : Z -> Z) (p : Z) : list Z :=
  p :: match k with O => [] | S k' => wblocks k' w (w (p + 48)) end.
Fixpoint waddrs (k : nat) (w : Z -> Z) (p : Z) : list Z :=
  match k with
  | O => [p + 16; p + 32; p + 48]
  | S k' => [p + 16; p + 32] ++ waddrs k' w (w (p + 48))
  end.
Lemma waddrs_length w : forall k p, List.length (waddrs k w p) = (2 * k + 3)%nat.
Proof. induction k as [|k IH]; intros p; cbn [waddrs List.length app]; [reflexivity|]. rewrite IH. lia. Qed.
Lemma wblocks_length w : forall k p, List.length (wblocks k w p) = S k.
Proof. induction k as [|k IH]; intros p; cbn [wblocks List.length]; [reflexivity|]. now rewrite IH. Qed.

(* the blocks of an object in the abstraction of a machine state are the chain of its words *)
Lemma obj_blocks_abs s : forall k p, Heap.obj_blocks k (abs_mem s) p = wblocks k (hword s) p.
Proof. induction k as [|k IH]; intros p; cbn [Heap.obj_blocks wblocks]; [reflexivity|]. f_equal. apply IH. Qed.

(* freshness of the reserved block along store_fields *)
Fixpoint chain_fresh (fuel : nat) (rest : list Z) (link : Z) (k : nat) (a : Heap.st) : Prop :=
  match fuel with
  | O => True
  | S f =>
      match rest with
      | [] => True
      | _ => ~ In (Heap.heap a) (Heap.obj_blocks k (Heap.m a) link) /\
             chain_fresh f (Heap.butlastn 2 rest)
               (fst (Heap.alloc (Heap.pad 2 (Heap.lastn 2 rest) ++ [link]) a)) (S k)
               (snd (Heap.alloc (Heap.pad 2 (Heap.lastn 2 rest) ++ [link]) a))
      end
  end.
Definition alloc_object_fresh (fields : list Z) (a : Heap.st) : Prop :=
  match fields with
  | [] => True
  | _ => chain_fresh (List.length fields) (Heap.butlastn 3 fields)
           (fst (Heap.alloc (Heap.pad 3 (Heap.lastn 3 fields)) a)) O
           (snd (Heap.alloc (Heap.pad 3 (Heap.lastn 3 fields)) a))
  end.
