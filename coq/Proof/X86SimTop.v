(* C06, forward simulation of the x86-64 code generator, part 5: whole programs of the integer fragment.
   Layout of the code image (`mk_image` of preamble ++ setup ++ translate ++ cleanup: the definitions'
   labels, the branch labels and `cleanup` resolve to the code emitted for them, given the label
   uniqueness that `asm_wf` checks on the real output), the prologue (callee-saved registers pushed,
   arguments moved into the entry definition's registers), `x86_program_entry` (both together, for any
   fragment), and the theorem `x86_codegen_simulates_int`. *)
From Coq Require Import List ZArith NArith String Bool Lia FMapPositive.
From SCC Require Import Base.Sexp Lang.AxSyn Sem.AxSem Model.ParMoves Model.Backend Model.X86 Sem.X86Sem Sem.X86Wf
     Model.Linearize Model.LinCheck Generated.Constants Proof.LinBasics
     Proof.X86State Proof.X86Sel Proof.X86Exec Proof.X86ParMoves Proof.SubstGraph Proof.X86Subst
     Proof.X86SimRel Proof.X86SimStmt Proof.X86SimPrint Proof.X86SimProg.
Import ListNotations.
Open Scope Z_scope.
Open Scope list_scope.

Lemma build_code_below : forall cs i a im j, (j < i)%positive -> PM.find j (code (build cs i a im)) = PM.find j (code im).
Proof.
  induction cs as [|c r IH]; intros i a im j Hj; cbn [build code]; auto.
  rewrite IH by lia. cbn [code]. apply PM.gso. lia.
Qed.
Lemma build_code_at : forall cs i a im, code_at (build cs i a im) i cs.
Proof.
  induction cs as [|c r IH]; intros i a im n c0 Hn; [destruct n; discriminate|].
  destruct n as [|n]; cbn [nth_error padd] in *.
  - inversion Hn; subst. cbn [build]. rewrite build_code_below by lia. cbn [code]. apply PM.gss.
  - cbn [build]. eapply IH; eauto.
Qed.
Definition label_names (cs : list xcode) : list string :=
  flat_map (fun c => match c with LAB l => [l] | _ => [] end) cs.
Lemma build_labels_old : forall cs i a im l,
  ~ In l (label_names cs) -> find_label (labels (build cs i a im)) l = find_label (labels im) l.
Proof.
  induction cs as [|c r IH]; intros i a im l Hl; cbn [build labels]; auto.
  rewrite IH.
  - cbn [labels]. destruct c; auto. cbn [find_label]. destruct (String.eqb_spec l l0); auto.
    subst. exfalso. apply Hl. cbn. now left.
  - intro H. apply Hl. cbn [label_names flat_map]. apply in_app_iff. now right.
Qed.
Lemma In_label_names_nh l cs : is_hash_label l = false -> In l (label_names cs) -> In l (defined_labels cs).
Proof.
  intros NH. unfold label_names, defined_labels. rewrite !in_flat_map. intros (c & Hc & Hl). exists c. split; auto.
  destruct c; try (now destruct Hl). destruct Hl as [<-|[]]. rewrite NH. now left.
Qed.
Lemma build_labels_nh : forall cs i a im, NoDup (defined_labels cs) -> labels_at_nh (build cs i a im) i cs.
Proof.
  induction cs as [|c r IH]; intros i a im Hnd n l Hn NH; [destruct n; discriminate|].
  assert (Hnd' : NoDup (defined_labels r)).
  { cbn [defined_labels flat_map] in Hnd. apply NoDup_app_tail in Hnd. exact Hnd. }
  destruct n as [|n]; cbn [nth_error padd] in *.
  - inversion Hn; subst. cbn [build]. rewrite build_labels_old.
    + cbn [labels find_label]. now rewrite String.eqb_refl.
    + intros Hin. apply (In_label_names_nh l r NH) in Hin. cbn [defined_labels flat_map] in Hnd. rewrite NH in Hnd.
      cbn [app] in Hnd. inversion Hnd; auto.
  - cbn [build]. eapply IH; eauto.
Qed.
Lemma first_dup_NoDup l : first_dup l = None -> NoDup l.
Proof.
  induction l as [|x l IH]; cbn [first_dup]; intros H; [constructor|].
  destruct (mem_str x l) eqn:M; [discriminate|]. constructor; auto.
  intros Hin. unfold mem_str in M. assert (existsb (String.eqb x) l = true); [|congruence].
  apply existsb_exists. exists x. split; auto. apply String.eqb_refl.
Qed.
Lemma asm_wf_labels cs : asm_wf cs = None -> NoDup (defined_labels cs).
Proof. unfold asm_wf. destruct (first_dup (defined_labels cs)) eqn:E; [discriminate|]. intros _. now apply first_dup_NoDup. Qed.
Theorem mk_image_layout cs :
  asm_wf cs = None -> code_at (mk_image cs) 1%positive cs /\ labels_at_nh (mk_image cs) 1%positive cs.
Proof. intros H. split; [apply build_code_at|apply build_labels_nh, asm_wf_labels, H]. Qed.

(* where `translate` puts the definitions *)
Lemma translate_defs types : forall defs lc code lc',
  translate x86_backend types defs lc = Ok (code, lc') ->
  forall d, In d defs ->
  exists pre lcd cd lcd' post,
    code = pre ++ LAB (show_ident (dname d) +++ "_") :: cd ++ post /\
    xcs types (dbody d) (dctx d) lcd = Ok (cd, lcd').
Proof. exact (BackendInv.translate_defs x86_backend types). Qed.

Definition sp0 : Z := STACK_TOP - 2104.

Lemma xtpos_reg i : (i < 6)%nat -> xtpos Snd i = Ok (XR (5 + 2 * N.of_nat i)%N).
Proof. intros H. destruct i as [|[|[|[|[|[|i]]]]]]; try lia; reflexivity. Qed.

(* What the proof needs of the state after the prologue, as one list, so that the six argument counts are
   each settled by a single evaluation that never builds the state inside the proof term. *)
Definition prologue_view (n : nat) (s : xstate) : prints * PM.t Z * list (option Z) :=
  (out s, heap s,
   rget s 0%N :: rget s HEAP :: rget s FREE
   :: map (fun k => kget s (sp0 + SPILL_SPACE + k)) [0; 8; 16; 24; 32; 40; 48]
   ++ map (fun i => rget s (5 + 2 * N.of_nat i)%N) (seq 0 n)).
Lemma prologue_eval im args su :
  setup (List.length args) = Ok su ->
  option_map (prologue_view (List.length args)) (exec_straight im su (init_state args)) =
  Some ([], PM.empty Z, map Some ([sp0; HEAP_BASE; HEAP_BASE + 64]
                      ++ map callee_marker [15; 14; 13; 12; 3; 2]%N ++ [RET_MARKER] ++ args)).
Proof.
  intros SU.
  destruct args as [|a1 [|a2 [|a3 [|a4 [|a5 [|a6 rest]]]]]]; cbn [List.length] in SU.
  7:{ exfalso. unfold setup in SU. cbn [move_arguments Nat.ltb Nat.leb] in SU. discriminate. }
  all: vm_compute in SU; injection SU as <-; vm_compute; reflexivity.
Qed.

Lemma prologue_state im args su :
  setup (List.length args) = Ok su ->
  exists s, exec_straight im su (init_state args) = Some s /\
    frame_ok s sp0 /\ outer_ok s sp0 /\ out s = [] /\
    rget s HEAP = Some HEAP_BASE /\ rget s FREE = Some (HEAP_BASE + 64) /\ heap s = PM.empty Z /\
    (forall i, (i < List.length args)%nat -> rget s (5 + 2 * N.of_nat i)%N = Some (nth i args 0)).
Proof.
  intros SU. pose proof (prologue_eval im args su SU) as EV.
  destruct (exec_straight im su (init_state args)) as [s|]; [|discriminate]. exists s. split; [reflexivity|].
  unfold prologue_view in EV. cbn [option_map map app] in EV.
  injection EV as OU HP SP HR FR K15 K14 K13 K12 K3 K2 KR RG.
  split; [split; [exact SP|]|split; [|split; [exact OU|split; [exact HR|split; [exact FR|split; [exact HP|]]]]]].
  - unfold sp_ok, sp0, STACK_LIMIT, STACK_TOP. change SPILL_SPACE with 2048. repeat split; try reflexivity; lia.
  - exact (conj eq_refl (conj K15 (conj K14 (conj K13 (conj K12 (conj K3 (conj K2 KR))))))).
  - intros i Hi. assert (E : nth_error (map (fun i => rget s (5 + 2 * N.of_nat i)%N) (seq 0 (List.length args))) i
                             = nth_error (map Some args) i) by (rewrite <- RG; reflexivity).
    rewrite !nth_error_map, (nth_error_nth' args 0 Hi), (nth_error_nth' (seq 0 (List.length args)) O) in E
      by (now rewrite seq_length).
    rewrite seq_nth in E by exact Hi. cbn [option_map] in E. now injection E.
Qed.
Lemma prologue_ok im args su :
  setup (List.length args) = Ok su ->
  exists s, exec_straight im su (init_state args) = Some s /\
    frame_ok s sp0 /\ outer_ok s sp0 /\ out s = [] /\ (exists f, rget s FREE = Some f) /\
    (forall i, (i < List.length args)%nat -> rget s (5 + 2 * N.of_nat i)%N = Some (nth i args 0)).
Proof.
  intros SU. destruct (prologue_state im args su SU) as (s & E & F & OK & O & _ & FR & _ & RG). eauto 10.
Qed.

Lemma entry_rel CL c0 args e0 s :
  bind (vars c0) (map VInt args) = Some e0 -> NoDup (ids c0) -> ctx_int c0 = true -> (List.length args <= 5)%nat ->
  frame_ok s sp0 -> (exists f, rget s FREE = Some f) ->
  (forall i, (i < List.length args)%nat -> rget s (5 + 2 * N.of_nat i)%N = Some (nth i args 0)) ->
  rel CL c0 e0 s sp0.
Proof.
  intros BD ND CI LE F FR RG. split; auto.
  - unfold sp0, STACK_LIMIT, STACK_TOP. lia.
  - unfold env_ids. rewrite <- (map_map fst idn), (bind_ids _ _ _ BD). unfold vars, ids. now rewrite map_map.
  - intros i x v Hi. destruct (bind_nth _ _ _ _ _ _ BD Hi) as (Hx & Hv).
    rewrite nth_error_map in Hv. destruct (nth_error args i) as [a|] eqn:Ha; [|discriminate]. cbn in Hv. inversion Hv; subst v.
    unfold vars in Hx. rewrite nth_error_map in Hx. destruct (nth_error c0 i) as [b|] eqn:Hb; [|discriminate].
    assert (Li : (i < List.length args)%nat) by (apply nth_error_Some; congruence).
    destruct (ctx_int_nth c0 i b CI Hb) as (K & T).
    exists b. split; [reflexivity|].
    apply (vrep_int CL s sp0 i b a (XR (5 + 2 * N.of_nat i)%N) K T); [apply xtpos_reg; lia|].
    cbn [lget]. rewrite (RG i Li). f_equal. now apply nth_error_nth.
Qed.

Lemma layout_at im cs a b c :
  code_at im 1%positive cs -> labels_at_nh im 1%positive cs -> cs = a ++ b ++ c ->
  code_at im (padd 1%positive (List.length a)) b /\ labels_at_nh im (padd 1%positive (List.length a)) b.
Proof.
  intros CA LA ->. apply code_at_app in CA as [_ CA]. apply code_at_app in CA as [CA _].
  apply labels_at_nh_app in LA as [_ LA]. apply labels_at_nh_app in LA as [LA _]. auto.
Qed.

(* The part of the program-level theorems that does not depend on the fragment: where the definitions, the entry
   definition's body and `cleanup` sit in the image, and the run from `asm_main` through the prologue into a state
   related to the entry environment.  What is left to a fragment is the run of the entry body. *)
Lemma x86_program_entry p lc cs n lc' args :
  plain_names p = true -> entry_int p = true -> lin_check_prog p = true ->
  x86_compile p lc = Ok (cs, n, lc') -> asm_wf cs = None -> List.length args = n ->
  exists d0 rest e0 c0 lc0 pc0 s1,
    pdefs p = d0 :: rest /\ entry_env d0 args = Some e0 /\
    defs_at (mk_image cs) p /\ cleanup_at (mk_image cs) /\
    xcs (ptypes p) (dbody d0) (dctx d0) lc = Ok (c0, lc0) /\
    code_at (mk_image cs) pc0 c0 /\ labels_at_nh (mk_image cs) pc0 c0 /\
    (forall CL, rel CL (dctx d0) e0 s1 sp0) /\ outer_ok s1 sp0 /\ out s1 = [] /\
    rget s1 HEAP = Some HEAP_BASE /\ rget s1 FREE = Some (HEAP_BASE + 64) /\ heap s1 = PM.empty Z /\
    (forall o, finishes (mk_image cs) pc0 s1 o -> exists outer inner, fst (run_x86 outer inner cs args) = o).
Proof.
  intros PL EI LIN XC WF NARGS.
  unfold x86_compile, x86_compile_with in XC.
  cs_bind XC as [[is n0] lc0] eqn:CP.
  cs_bind XC as r eqn:RT.
  injection XC as -> -> ->.
  unfold compile in CP. unfold entry_int in EI. destruct (pdefs p) as [|d0 rest] eqn:PD; [discriminate|].
  cbn [translate] in CP.
  cs_bind CP as [c0 lc0] eqn:C0.
  cs_bind CP as [c2 lc2] eqn:TR.
  injection CP as <- <- <-.
  unfold into_x86_64_routine in RT. cs_bind RT as su eqn:SU.
  injection RT as <-.
  destruct (bind_total (vars (dctx d0)) (map VInt args)) as (e0 & EE); [unfold vars; rewrite !map_length; auto|].
  assert (LE5 : (List.length args <= 5)%nat).
  { rewrite NARGS. destruct (List.length (dctx d0)) as [|[|[|[|[|[|k]]]]]] eqn:K; try lia.
    exfalso. unfold setup in SU. cbn [move_arguments Nat.ltb Nat.leb] in SU. discriminate. }
  set (entry := LAB (show_ident (dname d0) +++ "_")) in *.
  set (cs := preamble ++ su ++ (entry :: c0 ++ c2) ++ cleanup) in *.
  set (im := mk_image cs).
  destruct (mk_image_layout cs WF) as [CA LA]. fold im in CA, LA.
  assert (LINd : forall d, In d (pdefs p) -> lin_check (sigs_of p) (dctx d) (dbody d) = true).
  { unfold lin_check_prog in LIN. rewrite forallb_forall in LIN. exact LIN. }
  (* the prologue, then the entry definition's label *)
  rewrite <- NARGS in SU. destruct (prologue_state im args su SU) as (s1 & E1 & F1 & OK1 & O1 & HR1 & FR1 & HP1 & RG1).
  destruct (layout_at im cs [NOEXECSTACK; TEXT; EXTERN "print_i64"; EXTERN "println_i64"; GLOBAL "asm_main"]
              [LAB "asm_main"] (su ++ (entry :: c0 ++ c2) ++ cleanup) CA LA eq_refl) as [CA0 _].
  destruct (layout_at im cs preamble su ((entry :: c0 ++ c2) ++ cleanup) CA LA eq_refl) as [CA1 _].
  destruct (layout_at im cs (preamble ++ su) (entry :: c0) (c2 ++ cleanup) CA LA) as [CAe LAe].
  { unfold cs. rewrite <- !app_assoc. cbn [app]. rewrite <- !app_assoc. reflexivity. }
  apply code_at_cons in CAe as [CL CAe].
  change (entry :: c0) with ([entry] ++ c0) in LAe. apply labels_at_nh_app in LAe as [_ LAe].
  rewrite app_length, padd_add in CL, CAe, LAe. cbn [List.length padd preamble] in CA0, CA1, CL, CAe, LAe.
  eexists d0, rest, e0, c0, lc0, _, s1. split; [reflexivity|]. split; [exact EE|].
  split; [|split; [|split; [exact C0|split; [exact CAe|split; [exact LAe|split; [|split; [exact OK1|split; [exact O1|split; [exact HR1|split; [exact FR1|split; [exact HP1|]]]]]]]]]]].
  - (* the definitions *)
    intros d Hd. rewrite PD in Hd.
    assert (TR0 : translate x86_backend (ptypes p) (d0 :: rest) lc = Ok (entry :: c0 ++ c2, lc2))
      by (cbn [translate]; rewrite C0; cbn [rbind]; rewrite TR; reflexivity).
    destruct (translate_defs (ptypes p) _ _ _ _ TR0 d Hd) as (pre & lcd & cd & lcd' & post & EQ & CD).
    assert (NH : is_hash_label (show_ident (dname d) +++ "_") = false).
    { unfold plain_names in PL. rewrite forallb_forall in PL. rewrite <- PD in Hd. specialize (PL d Hd).
      destruct (is_hash_label (show_ident (dname d) +++ "_")) eqn:E; auto.
      apply is_hash_app_ in E. rewrite E in PL. discriminate. }
    destruct (layout_at im cs (preamble ++ su ++ pre) (LAB (show_ident (dname d) +++ "_") :: cd) (post ++ cleanup) CA LA)
      as [CAd LAd].
    { unfold cs. rewrite EQ. rewrite <- !app_assoc. cbn [app]. rewrite <- !app_assoc. reflexivity. }
    exists (padd 1%positive (List.length (preamble ++ su ++ pre))), lcd, cd, lcd'.
    apply code_at_cons in CAd as [Cd0 Cd1].
    change (LAB (show_ident (dname d) +++ "_") :: cd) with ([LAB (show_ident (dname d) +++ "_")] ++ cd) in LAd.
    pose proof LAd as LAd'. apply labels_at_nh_app in LAd' as [_ L1]. cbn [List.length padd] in L1.
    split; [exact (LAd O _ eq_refl NH)|]. split; [exact Cd0|]. split; [exact CD|]. split; [exact Cd1|exact L1].
  - (* cleanup *)
    destruct (layout_at im cs (preamble ++ su ++ entry :: c0 ++ c2) cleanup [] CA LA) as [CAc LAc].
    { unfold cs. rewrite app_nil_r, <- !app_assoc. reflexivity. }
    exists (padd 1%positive (List.length (preamble ++ su ++ entry :: c0 ++ c2))). split; [|exact CAc].
    exact (LAc O "cleanup"%string eq_refl eq_refl).
  - intros CL0. apply (entry_rel CL0 _ args); eauto. apply (lin_nodup (sigs_of p) _ (dbody d0)), LINd. rewrite PD. now left.
  - (* from asm_main to the entry body *)
    intros o FIN.
    assert (FIN0 : finishes im 6%positive (init_state args) o).
    { eapply exec_to_finishes; [|exact FIN].
      eapply exec_next; [apply (CA0 O _ eq_refl)|reflexivity|].
      eapply exec_to_trans; [apply (exec_straight_exec_to im su _ _ s1 CA1 E1)|].
      eapply exec_next; [exact CL|reflexivity|apply exec_refl]. }
    destruct (finishes_run im _ _ _ FIN0) as (outer & inner & RN).
    exists outer, inner. unfold run_x86. cbv zeta. change (mk_image _) with im.
    rewrite (LA 5%nat "asm_main"%string eq_refl eq_refl : find_label (labels im) "asm_main" = Some 6%positive).
    destruct (Nat.ltb_spec 5 (List.length args)); [lia|]. exact RN.
Qed.

(* a run that ends with a result or an undefined operation was started with the right number of arguments *)
Lemma good_run_arity p lc cs n lc' args fuel :
  x86_compile p lc = Ok (cs, n, lc') -> good (run_linear fuel p args) -> List.length args = n.
Proof.
  intros XC G. unfold x86_compile, x86_compile_with in XC.
  cs_bind XC as [[is n0] lc0] eqn:CP.
  destruct (into_x86_64_routine is n0) as [r|]; cbn [rbind] in XC; [|discriminate].
  injection XC as _ <- _.
  unfold compile in CP. unfold run_linear in G. destruct (pdefs p) as [|d0 rest]; [discriminate|].
  destruct (translate x86_backend (ptypes p) (d0 :: rest) lc) as [[is' lc1]|]; cbn [rbind] in CP; [|discriminate].
  injection CP as _ <- _.
  destruct (entry_env d0 args) as [e0|] eqn:EE; [|exfalso; destruct G as [(z & H)|(z & H)]; discriminate].
  unfold entry_env in EE. apply bind_length in EE. unfold vars in EE. now rewrite !map_length in EE.
Qed.

Theorem x86_codegen_simulates_int_total p lc cs n lc' args fuel o :
  int_frag p = true -> plain_names p = true -> lin_check_prog p = true ->
  x86_compile p lc = Ok (cs, n, lc') -> asm_wf cs = None ->
  List.length args = n ->
  run_linear fuel p args = o -> snd o <> OOutOfFuel ->
  exists outer inner, fst (run_x86 outer inner cs args) = o.
Proof.
  intros INT PL LIN XC WF NARGS <- G.
  assert (INTd : forall d, In d (pdefs p) -> def_int d = true).
  { unfold int_frag in INT. rewrite forallb_forall in INT. exact INT. }
  assert (LINd : forall d, In d (pdefs p) -> lin_check (sigs_of p) (dctx d) (dbody d) = true).
  { unfold lin_check_prog in LIN. rewrite forallb_forall in LIN. exact LIN. }
  assert (EI : entry_int p = true).
  { unfold entry_int. destruct (pdefs p) as [|d r]; [reflexivity|].
    specialize (INTd d (or_introl eq_refl)). unfold def_int in INTd. now apply andb_true_iff in INTd. }
  destruct (x86_program_entry p lc cs n lc' args PL EI LIN XC WF NARGS)
    as (d0 & rest & e0 & c0 & lc0 & pc0 & s1 & PD & EE & DEFS & CLEAN & C0 & CA & LA & R0 & OK1 & O1 & _ & _ & _ & RUN).
  apply RUN. unfold run_linear in G |- *. rewrite PD, EE in G |- *.
  assert (D0 : In d0 (pdefs p)) by (rewrite PD; now left).
  pose proof (INTd d0 D0) as I0. unfold def_int in I0. apply andb_true_iff in I0 as [I1 I2].
  exact (sim_exec _ p sp0 _ DEFS CLEAN LINd INTd fuel _ _ e0 [] s1 _ c0 lc lc0 I2 I1 (LINd d0 D0) C0 CA LA
           (R0 (fun _ _ _ => False)) OK1 O1 G).
Qed.

(* the same for runs that end with a result or an undefined operation (then the argument count is right) *)
Theorem x86_codegen_simulates_int p lc cs n lc' args fuel o :
  int_frag p = true -> plain_names p = true -> lin_check_prog p = true ->
  x86_compile p lc = Ok (cs, n, lc') -> asm_wf cs = None ->
  run_linear fuel p args = o -> good o ->
  exists outer inner, fst (run_x86 outer inner cs args) = o.
Proof.
  intros INT PL LIN XC WF <- G.
  exact (x86_codegen_simulates_int_total p lc cs n lc' args fuel _ INT PL LIN XC WF
           (good_run_arity p lc cs n lc' args fuel XC G) eq_refl (good_not_oof _ G)).
Qed.

Corollary x86_codegen_correct_int p lc cs n lc' args fuel o :
  int_frag p = true -> plain_names p = true -> lin_check_prog p = true -> asm_wf cs = None ->
  x86_compile p lc = Ok (cs, n, lc') ->
  run_linear fuel p args = o -> defined o = true ->
  exists outer inner, fst (run_x86 outer inner cs args) = o.
Proof.
  intros I P L W X R D. eapply x86_codegen_simulates_int; eauto.
  left. unfold defined in D. destruct (snd o); try discriminate. eauto.
Qed.
