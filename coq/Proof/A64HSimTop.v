(* C07, forward simulation of the AArch64 code generator for ALL statement forms: the program-level theorem.
   The layout of the compiled routine, its prologue and epilogue are `a64_program_run` (Proof/A64SimTop.v); added here:
   the forward property `fwd_ok` of the image (the code ends with the RET of `cleanup`: Proof/A64HLayout.v), the allocator
   registers after the prologue (`hprologue_ok`), the instrumented machine's run erases to `run_linear`
   (Proof/AxHeapErase.v), the invariant `hinv` initially, then `hsim_exec`.
   Hypotheses beyond the x86-64 theorem: `lits_i64`, `args_i64` (as for the fragments: AArch64's immediates, SDIV/MSUB and
   NZCV conditions are exact on 64-bit values) and `tags_i64` (a type has fewer than 2^61 constructors / destructors: the
   tag word 4k of a Let is materialised with MOVZ/MOVK; the Rust code computes `4 * k` in i64). *)
From Coq Require Import List ZArith NArith String Bool Lia FMapPositive Permutation.
From SCC Require Import Base.Sexp Lang.AxSyn Sem.AxSem Sem.AxHeap Model.ParMoves Model.Backend Model.A64 Sem.A64Sem
     Model.Linearize Model.LinCheck Generated.Constants Proof.LinBasics Proof.LinTyping Proof.LinMachine
     Proof.A64State Proof.A64ImmHw Proof.A64Imm Proof.A64Sel Proof.A64PM Proof.A64Exec
     Proof.A64MemSubst Proof.SubstGraph Proof.SubstBackends Proof.A64Subst Proof.A64Wf Proof.A64Print Proof.A64Entry
     Proof.A64SimRel Proof.A64SimStmt Proof.A64SimAddr Proof.A64SimClo Proof.A64SimProg Proof.A64SimProgC Proof.A64SimTop Proof.A64SimTopC
     Proof.HRep Proof.A64Mem Proof.A64MemOps Proof.A64HSimRel Proof.A64HSimStmt Proof.A64HConv Proof.A64HSimStore Proof.A64HSimLoad
     Proof.A64HSimSubst Proof.A64HLayout Proof.A64HSimHeapA Proof.X86HAnn Proof.A64HSimHeapB Proof.A64HSimHeapC Proof.A64HSimProgA Proof.A64HSimProg.
From SCC Require Import Sem.A64Wf.
From SCC Require Model.Heap Proof.HeapMore Proof.HeapTrace Proof.HeapRep Proof.AxHeapErase Proof.AxHeapTyping Proof.AxHeapSafe
     Proof.X86HeapDefs Proof.X86HFrame Proof.X86HSimProgA Proof.X86HSimTop.
Import Sem.AxHeap.
Import ListNotations.
Open Scope Z_scope.
Open Scope list_scope.

(* the frontier of every reachable configuration of the instrumented machine leaves room for the reserved block in the
   driver's 32 MiB buffer (the same bound as for x86-64: the two ISA models place the heap identically) *)
Definition heap_fits (p : prog) (args : list Z) : Prop :=
  forall tr c, hreach HEAP_BASE p args tr c -> Heap.frontier (hc_heap c) + 64 <= HEAP_BASE + HEAP_SIZE.
Lemma heap_fits_x86 p args : heap_fits p args <-> X86HSimTop.heap_fits p args.
Proof. split; intros H; exact H. Qed.

(* every type has fewer than 2^61 constructors / destructors *)
Definition tags_i64 (p : prog) : bool :=
  forallb (fun d => Z.of_nat (List.length (txtors d)) <? 2305843009213693952) (ptypes p).

Theorem a64_codegen_simulates p lc cs n lc' args fuel o :
  lin_check_prog p = true -> ann_check_prog p = true -> AxHeapTyping.entry_ext p = true ->
  plain_names p = true -> plain_types p = true -> lits_i64 p = true -> tags_i64 p = true ->
  a64_compile p lc = Ok (cs, n, lc') -> asm_wf cs = None -> code_small cs = true ->
  List.length args = n -> args_i64 args = true -> heap_fits p args ->
  run_linear fuel p args = o -> snd o <> OOutOfFuel ->
  exists outer inner, fst (run_a64 outer inner cs args) = o.
Proof.
  intros LIN ANN EI PL PLTY LITS TG XC WF SM NARGS AI FITS <- G.
  destruct (a64_compile_inv p lc cs n lc' XC) as (d & rest & su0 & is' & PD & _ & SU0 & _ & ECS).
  assert (FWD : fwd_ok (mk_image cs)).
  { apply (routine_image_fwd is' n). unfold into_aarch64_routine. rewrite SU0. cbn [rbind]. now rewrite ECS. }
  apply (a64_program_run p lc cs n lc' args fuel PL XC WF NARGS).
  intros d0 e0 s1 pc c0 lc0 HD EE LE7 (su & SU & E1) DEFS CLEAN F1 O1 _ RG1 C0 CA LA.
  rewrite PD in HD. inversion HD; subst d. clear HD.
  unfold run_linear in G. rewrite PD, EE in G.
  destruct (hprologue_ok (mk_image cs) args su SU) as (s1' & E1' & RH1 & RF1 & HE1).
  assert (s1' = s1) by congruence. subst s1'.
  set (im := mk_image cs) in *.
  assert (D0 : In d0 (pdefs p)) by (rewrite PD; now left).
  pose proof (proj1 (forallb_forall _ _) LIN) as LINd.
  assert (PLT : forall d, In d (ptypes p) -> hash_name (label_of_type_name (show_ident (tname d))) = false).
  { intros d Hd. apply (proj1 (forallb_forall _ _) PLTY) in Hd. destruct (hash_name _); [discriminate|reflexivity]. }
  assert (TAGS : forall d, In d (ptypes p) -> Z.of_nat (List.length (txtors d)) < 2305843009213693952).
  { intros d Hd. apply Z.ltb_lt. exact (proj1 (forallb_forall _ _) TG d Hd). }
  assert (I1 : ctx_int (dctx d0) = true).
  { apply X86HSimTop.all_ext_ctx_int. unfold AxHeapTyping.entry_ext in EI. rewrite PD in EI. exact EI. }
  (* the instrumented machine: its run erases to the run of the linear machine, and its invariant holds initially *)
  assert (ERUN : exec_linear fuel p e0 (dbody d0) [] =
                 fst (fst (hexec fuel p (mkhc (attach e0 []) (Heap.init HEAP_BASE) (dbody d0)) [] []))).
  { rewrite AxHeapErase.hexec_erase. cbn [hc_env hc_stmt]. now rewrite AxHeapErase.erase_attach. }
  rewrite ERUN in G |- *.
  assert (HI0 : hinv p (attach e0 []) (Heap.init HEAP_BASE) (dbody d0)).
  { split.
    - apply (AxHeapSafe.hinit_inv HEAP_BASE d0 e0 args); [unfold HEAP_BASE; lia|exact EE].
    - apply (AxHeapTyping.hinit_wt HEAP_BASE p d0 rest e0 args LIN EI PD EE).
    - apply X86HFrame.P03_init.
    - intros tr c' HSs. apply (FITS tr c'). exists d0, rest, e0. repeat split; auto. }
  assert (R0 : hrel (ptypes p) (hclo_ok im p) (dctx d0) (attach e0 []) (Heap.init HEAP_BASE) s1 sp0).
  { apply hentry_rel with (args := args); auto. exact (lin_nodup _ _ _ (LINd d0 D0)). }
  apply (hsim_exec im p sp0 (stack s1) (mk_image_ok cs) FWD (mk_image_small cs SM) TAGS PLT DEFS CLEAN LIN ANN
           (proj1 (forallb_forall _ _) LITS) fuel (dbody d0) (dctx d0) _ _ [] [] s1 pc c0 lc lc0
           (LINd d0 D0) (proj1 (forallb_forall _ _) ANN d0 D0) (proj1 (forallb_forall _ _) LITS d0 D0) C0 CA LA R0).
  - rewrite attach_names. exact (bind_ids _ _ _ EE).
  - exact HI0.
  - intros k _. reflexivity.
  - exact O1.
  - exact G.
Qed.
Print Assumptions a64_codegen_simulates.
