(* Refinement of the code of `a_store` (axcut2aarch64 memory.rs store / store_fields / store_values / store_value /
   store_field / store_zeros; Let and Create of AxCut) on the AArch64 ISA semantics to the abstract allocator of
   Model/Heap.v, part 1: the straight-line stores into the reserved block.
     a64_store_field_code_ok   one variable temporary (register or spill slot) into a word of the block;
     a64_store_value_ok        the integer slot, then the pointer slot (0 for an integer variable: STR XZR);
     a64_store_zeros_ok        the unused leading fields;
     a64_store_values_ok       store_values as emitted by store_fields (3 fields, or 2 fields of a continuation
                               block whose link slot is left alone): the words (`stored`) and the abstraction;
     a64_store_empty_ok        `a_store []` puts 0 into the first temporary of the next position.
   The slots of the variables (`fst_slot`, `snd_slot`, `fsts`), the predicate `stored` on heap words with its pure
   lemmas, and `link_slot` are those of Proof/X86MemStore.v, used under qualified names; `stored` mentions
   X86.field_offset, which is convertible to AArch64's (`stored_a64`).  `vals_ok` reads an AArch64 state and is
   defined here. *)
From Coq Require Import List ZArith NArith String Bool Lia FMapPositive.
From SCC Require Import Base.Sexp Lang.AxSyn Sem.AxSem Model.Backend Model.A64 Sem.A64Sem Generated.Constants
     Proof.A64State Proof.A64ImmHw Proof.A64Imm Proof.A64Sel Proof.A64Exec Proof.A64MemSubst Proof.A64Mem Proof.A64MemOps.
From SCC Require Model.Heap Model.X86 Sem.X86Sem Proof.X86Mem Proof.X86MemFrame Proof.X86MemStore.
Import ListNotations.
Open Scope list_scope.
Open Scope Z_scope.

Notation fst_slot := X86MemStore.fst_slot.
Notation snd_slot := X86MemStore.snd_slot.
Notation fsts := X86MemStore.fsts.
Notation stored := X86MemStore.stored.
Notation link_slot := X86MemStore.link_slot.

Definition vals_ok (s : astate) (sp : Z) (val : N -> Z) (E : nat) (bs : list binding) : Prop :=
  forall i b, nth_error bs i = Some b ->
    lget s sp (tpos (2 * N.of_nat (E + i) + 1)) = Some (val (2 * N.of_nat (E + i) + 1)%N) /\
    (bchi b <> Ext -> lget s sp (tpos (2 * N.of_nat (E + i))) = Some (val (2 * N.of_nat (E + i))%N)).

Lemma vals_ok_same s s' sp val E bs : sbt s s' -> vals_ok s sp val E bs -> vals_ok s' sp val E bs.
Proof.
  intros SB H i b Hi. destruct (H i b Hi) as [A B]. split.
  - rewrite (sbt_tpos s s' sp _ SB). exact A.
  - intros Hb. rewrite (sbt_tpos s s' sp _ SB). auto.
Qed.
Lemma vals_ok_app_l s sp val E a b : vals_ok s sp val E (a ++ b) -> vals_ok s sp val E a.
Proof. intros H i x Hi. apply H. rewrite nth_error_app1; auto. apply nth_error_Some. congruence. Qed.
Lemma vals_ok_app_r s sp val E a b : vals_ok s sp val E (a ++ b) -> vals_ok s sp val (E + List.length a) b.
Proof.
  intros H i x Hi. specialize (H (List.length a + i)%nat x).
  rewrite nth_error_app2 in H by lia. replace (List.length a + i - List.length a)%nat with i in H by lia. specialize (H Hi).
  now replace (E + (List.length a + i))%nat with (E + List.length a + i)%nat in H by lia.
Qed.

Lemma stored_a64 w w0 val E bs rv ff :
  stored w w0 val E bs rv ff <->
  (forall i b, nth_error bs i = Some b ->
     w (rv + field_offset Snd (ff - N.of_nat (List.length bs) + N.of_nat i)) = snd_slot val (E + i) /\
     w (rv + field_offset Fst (ff - N.of_nat (List.length bs) + N.of_nat i)) = fst_slot val (E + i) b) /\
  (forall j, (j < ff - N.of_nat (List.length bs))%N -> w (rv + field_offset Fst j) = 0) /\
  (forall a, a < rv + 16 \/ rv + 16 + 16 * Z.of_N ff <= a -> w a = w0 a).
Proof.
  unfold X86MemStore.stored. change X86.field_offset with field_offset. reflexivity.
Qed.

Lemma nseq_succ n : nseq 0 (N.succ n) = nseq 0 n ++ [n].
Proof. unfold nseq. rewrite N2Nat.inj_succ, seq_S, map_app. cbn. now rewrite N2Nat.id. Qed.

Lemma sbt_hset s a v : sbt s (hset s a v).
Proof. split; [intros r _ _; apply rget_set_heap|split; reflexivity]. Qed.
Lemma sbt_rset_temp s v : sbt s (rset s TEMP v).
Proof. split; [intros r H _; now rewrite rget_rset_other by congruence|split; [apply stack_rset|apply out_rset]]. Qed.
Lemma sbt_rget s s' r : sbt s s' -> r <> TEMP -> r <> TEMP2 -> rget s' r = rget s r.
Proof. intros (A & _). apply A. Qed.

Section Store.
Variable im : image.

(* one register into one word of the block *)
Lemma a64_str_ok pos a blk off s rv v :
  code_at im pos [STR a blk off] -> gp blk -> rget s blk = Some rv -> heap_addr (rv + off) -> rget s a = Some v ->
  exists s', exec_to im pos s (padd pos 1) s' /\ sbt s s' /\ (forall x, hword s' x = if x =? rv + off then v else hword s x).
Proof.
  intros HC G R Ha V. exists (hset s (rv + off) v). split; [|split].
  - nxt HC 0%nat; [apply (step_STR_h im s a blk off rv v G R Ha V)|apply exec_refl].
  - apply sbt_hset.
  - intros x. apply hword_hset, heap_addr_pos, Ha.
Qed.

Definition store_field_code (t : atemp) (blk : areg) (off : Z) : list acode :=
  match t with AR r => [STR r blk off] | AS p => [LDR TEMP SP (stack_offset p); STR TEMP blk off] end.

Lemma store_field_shape n c blk j cs :
  store_field n c blk j = Ok cs ->
  (2 * N.of_nat (List.length c) + tnum_n n < MAXPOS)%N /\
  cs = store_field_code (tpos (2 * N.of_nat (List.length c) + tnum_n n)) blk (field_offset n j).
Proof.
  unfold store_field. destruct (a_fresh n c) as [t|] eqn:Et; [|discriminate]. cbn [rbind].
  apply a_fresh_tpos in Et as [-> Hk]. intros H. inversion H. split; [exact Hk|]. reflexivity.
Qed.

Lemma a64_store_field_code_ok pos t blk off s sp v rv :
  code_at im pos (store_field_code t blk off) ->
  frame_ok s sp -> loc_ok t -> lget s sp t = Some v ->
  gp blk -> blk <> TEMP -> rget s blk = Some rv -> heap_addr (rv + off) ->
  exists s', exec_to im pos s (padd pos (List.length (store_field_code t blk off))) s' /\
    sbt s s' /\ (forall a, hword s' a = if a =? rv + off then v else hword s a).
Proof.
  intros HC FR T V G NB R Ha.
  destruct t as [r|q]; cbn [store_field_code List.length lget loc_ok] in *.
  - exact (a64_str_ok pos r blk off s rv v HC G R Ha V).
  - (* through TEMP *)
    apply code_at_cons in HC as [HC0 HC1]. set (s1 := rset s TEMP (Some v)).
    destruct (a64_str_ok (Pos.succ pos) TEMP blk off s1 rv v HC1 G) as (s' & ST & SB & W).
    { unfold s1. rewrite rget_rset_other by congruence. exact R. }
    { exact Ha. }
    { apply rget_rset_same. exact I. }
    exists s'. split; [|split].
    + eapply exec_next; [exact HC0| |exact ST]. rewrite (step_LDR_slot im s sp FR) by exact T. now rewrite V.
    + exact (sbt_trans _ _ _ (sbt_rset_temp s (Some v)) SB).
    + intros a. rewrite W. unfold s1. now rewrite hword_rset.
Qed.

Lemma store_value_shape b c blk j cs :
  store_value b c blk j = Ok cs ->
  let k := (2 * N.of_nat (List.length c))%N in
  (k + 1 < MAXPOS)%N /\
  exists c2, cs = store_field_code (tpos (k + 1)) blk (field_offset Snd j) ++ c2 /\
    (bchi b = Ext /\ c2 = store_zero blk j \/ bchi b <> Ext /\ c2 = store_field_code (tpos k) blk (field_offset Fst j)).
Proof.
  intros H k. unfold store_value in H.
  destruct (store_field Snd c blk j) as [c1|] eqn:E1; [|discriminate]. cbn [rbind] in H.
  apply store_field_shape in E1 as [K1 ->]. cbn [tnum_n] in K1, H. split; [exact K1|].
  destruct (bchi b).
  3: { inversion H. eauto. }
  all: destruct (store_field Fst c blk j) as [c2|] eqn:E2; [|discriminate]; cbn [rbind] in H.
  all: apply store_field_shape in E2 as [_ ->]; cbn [tnum_n] in H; rewrite N.add_0_r in H.
  all: inversion H; eexists; split; [reflexivity|right; split; [discriminate|reflexivity]].
Qed.

Lemma a64_store_value_ok pos b c blk j cs s sp rv (val : N -> Z) :
  store_value b c blk j = Ok cs -> code_at im pos cs -> (j < 3)%N ->
  frame_ok s sp -> gp blk -> blk <> TEMP -> blk <> TEMP2 -> rget s blk = Some rv -> is_blk rv ->
  lget s sp (tpos (2 * N.of_nat (List.length c) + 1)) = Some (snd_slot val (List.length c)) ->
  (bchi b <> Ext -> lget s sp (tpos (2 * N.of_nat (List.length c))) = Some (val (2 * N.of_nat (List.length c))%N)) ->
  exists s', exec_to im pos s (padd pos (List.length cs)) s' /\ sbt s s' /\
    (forall a, hword s' a = if a =? rv + field_offset Fst j then fst_slot val (List.length c) b
                            else if a =? rv + field_offset Snd j then snd_slot val (List.length c) else hword s a).
Proof.
  intros Hsv HC Hj FR G NB NB2 R Hb V1 V0.
  destruct (store_value_shape _ _ _ _ _ Hsv) as (K1 & c2 & -> & Hc2). apply code_at_app2 in HC as [HC1 HC2].
  pose proof (field_addr rv Fst j Hb Hj) as HaF. assert (K0 : (2 * N.of_nat (List.length c) < MAXPOS)%N) by lia.
  destruct (a64_store_field_code_ok pos _ blk _ s sp _ rv HC1 FR (tpos_loc_ok _ K1) V1 G NB R (field_addr rv Snd j Hb Hj))
    as (s1 & ST1 & SB1 & W1).
  assert (R1 : rget s1 blk = Some rv) by (rewrite <- R; now apply sbt_rget).
  assert (S2 : forall pos', code_at im pos' c2 -> exists s2, exec_to im pos' s1 (padd pos' (List.length c2)) s2 /\ sbt s1 s2 /\
     (forall a, hword s2 a = if a =? rv + field_offset Fst j then fst_slot val (List.length c) b else hword s1 a)).
  { intros pos' HC'. unfold X86MemStore.fst_slot. destruct Hc2 as [[Hext ->]|[Hnext ->]].
    - rewrite Hext. exact (a64_str_ok _ XZR blk _ s1 rv 0 HC' G R1 HaF eq_refl).
    - specialize (V0 Hnext). rewrite <- (sbt_tpos s s1 sp _ SB1) in V0.
      replace (match bchi b with Ext => 0 | _ => val (2 * N.of_nat (List.length c))%N end) with (val (2 * N.of_nat (List.length c))%N)
        by (destruct (bchi b); congruence).
      apply (a64_store_field_code_ok _ _ blk _ s1 sp _ rv HC' (sbt_frame _ _ _ SB1 FR) (tpos_loc_ok _ K0) V0 G NB R1 HaF). }
  destruct (S2 _ HC2) as (s2 & ST2 & SB2 & W2).
  exists s2. split; [eapply exec_app_len; eassumption|]. split; [eapply sbt_trans; eassumption|].
  intros a. rewrite W2, W1. reflexivity.
Qed.

Lemma a64_store_zeros_ok : forall ff pos blk s rv,
  (ff <= 3)%N -> code_at im pos (store_zeros ff blk) -> gp blk -> blk <> TEMP -> blk <> TEMP2 -> rget s blk = Some rv -> is_blk rv ->
  exists s', exec_to im pos s (padd pos (List.length (store_zeros ff blk))) s' /\ sbt s s' /\
    (forall j, (j < ff)%N -> hword s' (rv + field_offset Fst j) = 0) /\
    (forall a, a < rv + 16 \/ rv + 16 + 16 * Z.of_N ff <= a -> hword s' a = hword s a).
Proof.
  intros ff. induction ff as [|ff IH] using N.peano_ind; intros pos blk s rv Hff HC G NB NB2 R Hb.
  - exists s. split; [apply exec_refl|]. split; [apply sbt_refl|]. split; [intros j Hj; lia|auto].
  - unfold store_zeros in *. rewrite nseq_succ, flat_map_app in *. cbn [flat_map store_zero app] in *.
    apply code_at_app2 in HC as [HC1 HC2].
    destruct (IH pos blk s rv ltac:(lia) HC1 G NB NB2 R Hb) as (s1 & ST1 & SB1 & Z1 & W1).
    assert (R1 : rget s1 blk = Some rv) by (rewrite <- R; now apply sbt_rget).
    destruct (a64_str_ok _ XZR blk _ s1 rv 0 HC2 G R1 (field_addr rv Fst ff Hb ltac:(lia)) eq_refl) as (s2 & ST2 & SB2 & W2).
    exists s2. split; [eapply exec_app_len; eassumption|]. split; [eapply sbt_trans; eassumption|]. split.
    + intros j Hj. rewrite W2.
      destruct (Z.eqb_spec (rv + field_offset Fst j) (rv + field_offset Fst ff)) as [e|n]; [reflexivity|].
      apply Z1. rewrite !field_offset_val in n. cbn [tnum_n] in n. lia.
    + intros a Ha'. rewrite W2, field_offset_val. cbn [tnum_n].
      destruct (Z.eqb_spec a (rv + (16 + 16 * Z.of_N ff + 8 * Z.of_N 0))); [lia|]. apply W1. lia.
Qed.

Lemma a64_store_values_rev_ok : forall bsrev remaining blk ff cs pos s sp rv val,
  store_values bsrev remaining blk ff = Ok cs ->
  (N.of_nat (List.length bsrev) <= ff)%N -> (ff <= 3)%N ->
  code_at im pos cs -> frame_ok s sp -> gp blk -> blk <> TEMP -> blk <> TEMP2 -> rget s blk = Some rv -> is_blk rv ->
  vals_ok s sp val (List.length remaining) (rev bsrev) ->
  exists s', exec_to im pos s (padd pos (List.length cs)) s' /\ sbt s s' /\
     stored (hword s') (hword s) val (List.length remaining) (rev bsrev) rv ff.
Proof.
  induction bsrev as [|b rest IH]; intros remaining blk ff cs pos s sp rv val Hsv Hlen Hff HC FR G NB NB2 R Hb V.
  - cbn [store_values] in Hsv. inversion Hsv; subst cs.
    destruct (a64_store_zeros_ok ff pos blk s rv Hff HC G NB NB2 R Hb) as (s1 & ST & SB & Z1 & W1).
    exists s1. split; [exact ST|]. split; [exact SB|]. apply stored_a64. cbn [rev List.length]. split; [|split].
    + intros i b Hi. destruct i; discriminate.
    + intros j Hj. apply Z1. lia.
    + exact W1.
  - cbn [store_values] in Hsv. cbn [List.length] in Hlen.
    destruct (store_value b (remaining ++ rev rest) blk (ff - 1)) as [c1|] eqn:E1; [|discriminate]. cbn [rbind] in Hsv.
    destruct (store_values rest remaining blk (ff - 1)) as [c2|] eqn:E2; [|discriminate]. cbn [rbind] in Hsv.
    inversion Hsv; subst cs. clear Hsv.
    set (E := List.length remaining) in *. set (n := List.length rest) in *.
    assert (HL : List.length (remaining ++ rev rest) = (E + n)%nat) by (rewrite app_length, rev_length; reflexivity).
    apply code_at_app2 in HC as [HC1 HC2].
    cbn [rev] in V. destruct (vals_ok_app_r _ _ _ _ _ _ V 0%nat b eq_refl) as [Vb1 Vb0].
    rewrite rev_length, Nat.add_0_r in Vb1, Vb0. fold n in Vb1, Vb0. rewrite <- HL in Vb1, Vb0.
    destruct (a64_store_value_ok pos b (remaining ++ rev rest) blk (ff - 1) c1 s sp rv val E1 HC1 ltac:(lia) FR G NB NB2 R Hb Vb1 Vb0)
      as (s1 & ST1 & SB1 & W1).
    rewrite HL in W1.
    assert (R1 : rget s1 blk = Some rv) by (rewrite <- R; now apply sbt_rget).
    assert (V1 : vals_ok s1 sp val E (rev rest)) by (eapply vals_ok_same; [exact SB1|]; eapply vals_ok_app_l; exact V).
    destruct (IH remaining blk (ff - 1)%N c2 _ s1 sp rv val E2 ltac:(lia) ltac:(lia) HC2 (sbt_frame _ _ _ SB1 FR) G NB NB2 R1 Hb V1)
      as (s2 & ST2 & SB2 & St).
    apply stored_a64 in St. destruct St as (S1 & S2 & S3). rewrite rev_length in S1, S2. fold n in S1, S2.
    exists s2. split; [eapply exec_app_len; eassumption|]. split; [eapply sbt_trans; eassumption|].
    assert (HF : field_offset Fst (ff - 1) = 16 * Z.of_N ff) by (rewrite field_offset_val; cbn [tnum_n]; lia).
    assert (HS : field_offset Snd (ff - 1) = 16 * Z.of_N ff + 8) by (rewrite field_offset_val; cbn [tnum_n]; lia).
    apply stored_a64. cbn [rev]. rewrite app_length, rev_length. cbn [List.length]. fold n. split; [|split].
    + intros i b' Hi. apply nth_error_snoc in Hi as [Hi|[-> ->]].
      * (* stored by the later stores *)
        replace (ff - N.of_nat (n + 1) + N.of_nat i)%N with (ff - 1 - N.of_nat n + N.of_nat i)%N by lia.
        exact (S1 i b' Hi).
      * (* stored first, and outside the fields the later stores write *)
        rewrite rev_length. fold n. replace (ff - N.of_nat (n + 1) + N.of_nat n)%N with (ff - 1)%N by lia.
        rewrite !S3, !W1 by (rewrite ?HF, ?HS; lia). rewrite Z.eqb_refl.
        destruct (Z.eqb_spec (rv + field_offset Snd (ff - 1)) (rv + field_offset Fst (ff - 1))) as [e|_]; [rewrite HF, HS in e; lia|].
        rewrite Z.eqb_refl. auto.
    + intros j Hj. apply S2. lia.
    + intros a Ha. rewrite S3 by lia. rewrite W1.
      destruct (Z.eqb_spec a (rv + field_offset Fst (ff - 1))) as [e|_]; [rewrite HF in e; lia|].
      destruct (Z.eqb_spec a (rv + field_offset Snd (ff - 1))) as [e|_]; [rewrite HS in e; lia|]. reflexivity.
Qed.

Lemma stored_abs F s s' val E bs rv cap :
  stored (hword s') (hword s) val E bs rv cap -> (cap = 3 \/ cap = 2)%N -> (N.of_nat (List.length bs) <= cap)%N ->
  is_blk rv -> sbt s s' ->
  st_eqB (abs_heap F s')
    {| Heap.m := Heap.set_ps (abs_mem s) rv (Heap.pad (N.to_nat cap) (fsts val E bs) ++ link_slot cap (hword s) rv);
       Heap.heap := reg_or0 s HEAP; Heap.free := reg_or0 s FREE; Heap.frontier := F |}.
Proof.
  intros St Hcap Hlen Hb SB. destruct (sbt_regs _ _ SB) as [EH EF].
  split; [exact EH|]. split; [exact EF|]. split; [reflexivity|].
  intros x Hx. cbn [abs_heap Heap.m]. unfold Heap.set_ps, Heap.upd.
  assert (Hff : (cap <= 3)%N) by (destruct Hcap; subst; lia).
  destruct (Z.eqb_spec x rv) as [->|Hne].
  - unfold abs_mem at 1. rewrite (X86MemStore.stored_hdr _ _ _ _ _ _ _ St). cbn [abs_mem Heap.hdr]. f_equal.
    destruct Hcap; subst cap; unfold X86MemStore.link_slot; cbn [N.eqb Pos.eqb N.to_nat Pos.to_nat Pos.iter_op Nat.add].
    + rewrite app_nil_r. eapply X86MemStore.stored_slots3; [exact St|lia].
    + eapply X86MemStore.stored_slots2; [exact St|lia].
  - unfold abs_mem. rewrite <- (Z.add_0_r x) at 1.
    rewrite !(X86MemStore.stored_other_blk _ _ _ _ _ _ _ x _ St Hff Hb Hx Hne) by lia. now rewrite Z.add_0_r.
Qed.

(* store_values as emitted by store_fields *)
Theorem a64_store_values_ok pos to_store_next remaining_plus_rest cap cs s sp rv F val :
  store_values (rev to_store_next) remaining_plus_rest HEAP cap = Ok cs ->
  (cap = 3 \/ cap = 2)%N -> (N.of_nat (List.length to_store_next) <= cap)%N ->
  code_at im pos cs -> frame_ok s sp -> rget s HEAP = Some rv -> is_blk rv ->
  vals_ok s sp val (List.length remaining_plus_rest) to_store_next ->
  exists s', exec_to im pos s (padd pos (List.length cs)) s' /\
    sbt s s' /\
    stored (hword s') (hword s) val (List.length remaining_plus_rest) to_store_next rv cap /\
    st_eqB (abs_heap F s')
      {| Heap.m := Heap.set_ps (abs_mem s) rv
                     (Heap.pad (N.to_nat cap) (fsts val (List.length remaining_plus_rest) to_store_next) ++ link_slot cap (hword s) rv);
         Heap.heap := reg_or0 s HEAP; Heap.free := reg_or0 s FREE; Heap.frontier := F |}.
Proof.
  intros Hsv Hcap Hlen HC FR R Hb V.
  destruct (a64_store_values_rev_ok (rev to_store_next) remaining_plus_rest HEAP cap cs pos s sp rv val Hsv) as (s1 & ST & SB & St); auto.
  - rewrite rev_length. exact Hlen.
  - destruct Hcap; subst; lia.
  - exact I.
  - discriminate.
  - discriminate.
  - rewrite rev_involutive. exact V.
  - rewrite rev_involutive in St. exists s1. split; [exact ST|]. split; [exact SB|]. split; [exact St|].
    now apply stored_abs.
Qed.

(* nothing to store: the null pointer *)
Theorem a64_store_empty_ok pos remaining lc cs lc' s sp :
  a_store [] remaining lc = Ok (cs, lc') ->
  code_at im pos cs -> frame_ok s sp ->
  lc' = lc /\
  exists s', exec_to im pos s (padd pos (List.length cs)) s' /\
    lget s' sp (tpos (2 * N.of_nat (List.length remaining))) = Some 0 /\
    (forall l, loc_ok l -> l <> tpos (2 * N.of_nat (List.length remaining)) -> l <> AR TEMP -> lget s' sp l = lget s sp l) /\
    heap s' = heap s /\ out s' = out s /\ frame_ok s' sp /\ stack_frame s s' sp.
Proof.
  intros H HC FR. unfold a_store in H. cbn [List.length store_fields] in H.
  destruct (a_fresh Fst remaining) as [t|] eqn:Et; [|discriminate]. cbn [rbind] in H.
  apply a_fresh_tpos in Et as [-> Hk]. cbn [tnum_n] in *. rewrite N.add_0_r in *.
  set (k := (2 * N.of_nat (List.length remaining))%N) in *.
  assert (EC : cs = a_load_immediate (tpos k) 0 /\ lc' = lc) by (inversion H; auto). destruct EC as [-> ->]. clear H.
  split; [reflexivity|].
  pose proof (tpos_loc_ok k Hk) as LK.
  assert (Fin : forall s', same_except [tpos k; AR TEMP] s s' sp -> stack_frame s s' sp ->
    (forall l, loc_ok l -> l <> tpos k -> l <> AR TEMP -> lget s' sp l = lget s sp l) /\
    heap s' = heap s /\ out s' = out s /\ frame_ok s' sp /\ stack_frame s s' sp).
  { intros s' (L & Hh & Ho & _ & Fr) SF. split; [|auto]. intros l Ll N1 N2. apply L; [exact Ll|]. intros [E|[E|[]]]; congruence. }
  assert (MZ : forall s0 r, step im (MOVZ r 0 0) s0 = Next (lset s0 sp (AR r) (Some 0))) by reflexivity.
  (* MOVZ into the register of the temporary, or into TEMP and from there into its slot *)
  destruct (tpos k) as [r|q]; cbn [a_load_immediate] in *; change (imm_code ?r 0) with [MOVZ r 0 0] in *.
  - exists (lset s sp (AR r) (Some 0)). split; [nxt HC 0%nat; [apply MZ|apply exec_refl]|]. split; [apply rget_rset_same, LK|].
    apply Fin; [apply same_except_lset; [apply same_except_refl, FR|exact LK]|apply stack_frame_eq, stack_rset].
  - pose proof (same_except_write s sp (AR TEMP) (Some 0) FR I) as P1. set (s1 := lset s sp (AR TEMP) (Some 0)) in *.
    exists (lset s1 sp (AS q) (Some 0)). split; [|split].
    + nxt HC 0%nat; [apply MZ|].
      nxt HC 1%nat; [rewrite (step_STR_slot im s1 sp (same_except_frame _ _ _ _ P1)) by exact LK; unfold s1 at 2; cbn [lset]|].
      { now rewrite rget_rset_same by exact I. }
      apply exec_refl.
    + apply sget_sset_same.
    + apply Fin; [apply same_except_lset; [exact P1|exact LK]|].
      apply (stack_frame_trans s s1); [apply stack_frame_eq, stack_rset|apply stack_frame_sset, LK].
Qed.
End Store.

Print Assumptions a64_store_values_ok.
Print Assumptions a64_store_empty_ok.
