(* C15, printed instance names.  The checker keys monomorphic instances by the PRINTED name
   name ++ print_targs targs  (and xtor instances by  xtor ++ print_targs targs).  Here: for names
   without the four delimiter characters  [ ] , space  and different from "i64" ([name_ok]; the
   lexer's classes [A-Z][a-zA-Z0-9_]* and [a-z][a-zA-Z0-9_]* minus the keyword i64 are inside),
   printing is injective in (head, arguments), and  str::replace(print_targs targs, "")  recovers
   the head from an instance name.  Without the condition printing is not injective
   ([print_collision_without_name_ok]). *)
From Coq Require Import List String Ascii Bool Lia.
From SCC Require Import Lang.FunSyn Model.Check Proof.StringFacts.
From SCC Require Export Sem.FunNames Lang.SynInd.
Import ListNotations.
Open Scope string_scope.
Open Scope list_scope.

Lemma ty_names_ok_decl : forall n args, ty_names_ok (FDecl n args) = name_ok n && tys_names_ok args.
Proof.
  intros n args. reflexivity.
Qed.

(* what may follow a printed type inside a printed list: nothing, "," or "]" *)
Definition starts_delim (s : string) : bool := match s with EmptyString => true | String c _ => delim c end.
Definition tail_ok (s : string) : bool :=
  match s with EmptyString => true | String c _ => Ascii.eqb c ","%char || Ascii.eqb c "]"%char end.
Lemma tail_ok_starts : forall s, tail_ok s = true -> starts_delim s = true.
Proof.
  intros [|c r] H; [reflexivity|]. simpl in *. unfold delim.
  destruct (Ascii.eqb c "["), (Ascii.eqb c "]"), (Ascii.eqb c ","); simpl in *; try reflexivity; discriminate.
Qed.

Lemma append_cancel_l : forall a b c : string, (a ++ b = a ++ c)%string -> b = c.
Proof. exact sapp_inj_l. Qed.

(* a delimiter-free prefix is determined by the whole string: it ends at the first delimiter *)
Lemma no_delim_split : forall n1 n2 s1 s2,
  no_delim n1 = true -> no_delim n2 = true -> starts_delim s1 = true -> starts_delim s2 = true ->
  (n1 ++ s1 = n2 ++ s2)%string -> n1 = n2 /\ s1 = s2.
Proof.
  induction n1 as [|c r IH]; intros n2 s1 s2 H1 H2 D1 D2 E.
  - destruct n2 as [|c2 r2]; [simpl in E; auto|].
    simpl in E. subst s1. simpl in D1, H2. apply andb_true_iff in H2. destruct H2 as [H2 _].
    rewrite D1 in H2. discriminate.
  - destruct n2 as [|c2 r2].
    + simpl in E. subst s2. simpl in D2, H1. apply andb_true_iff in H1. destruct H1 as [H1 _].
      rewrite D2 in H1. discriminate.
    + simpl in E. inversion E; subst. simpl in H1, H2.
      apply andb_true_iff in H1. destruct H1 as [_ H1]. apply andb_true_iff in H2. destruct H2 as [_ H2].
      destruct (IH r2 s1 s2 H1 H2 D1 D2 H3) as [-> ->]. auto.
Qed.

Lemma name_ok_no_delim : forall n, name_ok n = true -> no_delim n = true.
Proof. intros n H. unfold name_ok in H. apply andb_true_iff in H. tauto. Qed.
Lemma name_ok_not_i64 : forall n, name_ok n = true -> n <> "i64".
Proof.
  intros n H E. subst. unfold name_ok in H. apply andb_true_iff in H. destruct H as [_ H]. discriminate.
Qed.

Definition items (l : list fty) : string := fold_right (fun b acc => (", " ++ print_ty b ++ acc)%string) "]" l.
Lemma print_list_cons : forall a r, print_list print_ty (a :: r) = ("[" ++ print_ty a ++ items r)%string.
Proof. reflexivity. Qed.
Lemma print_ty_decl : forall n args, print_ty (FDecl n args) = (n ++ print_targs args)%string.
Proof. reflexivity. Qed.
Lemma print_targs_starts : forall l r, starts_delim r = true -> starts_delim (print_targs l ++ r) = true.
Proof. intros [|a l] r H; [exact H|reflexivity]. Qed.
Lemma print_targs_starts' : forall l, starts_delim (print_targs l) = true.
Proof. intros [|a l]; reflexivity. Qed.
Lemma items_tail : forall l r, tail_ok (items l ++ r) = true.
Proof. intros [|a l] r; reflexivity. Qed.

Definition inj_at (t1 : fty) : Prop :=
  forall t2 r1 r2, ty_names_ok t1 = true -> ty_names_ok t2 = true -> tail_ok r1 = true -> tail_ok r2 = true ->
    (print_ty t1 ++ r1 = print_ty t2 ++ r2)%string -> t1 = t2 /\ r1 = r2.

Lemma items_inj : forall l1, Forall inj_at l1 ->
  forall l2 r1 r2, tys_names_ok l1 = true -> tys_names_ok l2 = true -> tail_ok r1 = true -> tail_ok r2 = true ->
    (items l1 ++ r1 = items l2 ++ r2)%string -> l1 = l2 /\ r1 = r2.
Proof.
  intros l1 HF. induction HF as [|a l Ha _ IH]; intros l2 r1 r2 N1 N2 T1 T2 E.
  - destruct l2 as [|b k]; simpl in E.
    + inversion E. auto.
    + discriminate.
  - destruct l2 as [|b k]; simpl in E; [discriminate|].
    inversion E as [E']. clear E.
    simpl in N1, N2. apply andb_true_iff in N1. destruct N1 as [Na Nl]. apply andb_true_iff in N2. destruct N2 as [Nb Nk].
    rewrite !sapp_assoc in E'.
    destruct (Ha b _ _ Na Nb (items_tail l r1) (items_tail k r2) E') as [-> E2].
    destruct (IH k r1 r2 Nl Nk T1 T2 E2) as [-> ->]. auto.
Qed.

Lemma print_targs_inj_gen : forall l1, Forall inj_at l1 ->
  forall l2 r1 r2, tys_names_ok l1 = true -> tys_names_ok l2 = true -> tail_ok r1 = true -> tail_ok r2 = true ->
    (print_targs l1 ++ r1 = print_targs l2 ++ r2)%string -> l1 = l2 /\ r1 = r2.
Proof.
  intros l1 HF l2 r1 r2 N1 N2 T1 T2 E. unfold print_targs in E.
  destruct l1 as [|a l], l2 as [|b k].
  - simpl in E. auto.
  - rewrite print_list_cons in E. simpl in E. subst r1. simpl in T1. discriminate.
  - rewrite print_list_cons in E. simpl in E. subst r2. simpl in T2. discriminate.
  - rewrite !print_list_cons in E. simpl in E. inversion E as [E']. clear E.
    rewrite !sapp_assoc in E'.
    inversion HF as [|? ? Ha HFl]; subst.
    simpl in N1, N2. apply andb_true_iff in N1. destruct N1 as [Na Nl]. apply andb_true_iff in N2. destruct N2 as [Nb Nk].
    destruct (Ha b _ _ Na Nb (items_tail l r1) (items_tail k r2) E') as [-> E2].
    destruct (items_inj l HFl k r1 r2 Nl Nk T1 T2 E2) as [-> ->]. auto.
Qed.

Theorem print_ty_inj_gen : forall t1, inj_at t1.
Proof.
  induction t1 using fty_ind'; unfold inj_at; intros t2 r1 r2 N1 N2 T1 T2 E.
  - destruct t2 as [|n args].
    + simpl in E. inversion E. auto.
    + exfalso. rewrite print_ty_decl, sapp_assoc in E. rewrite ty_names_ok_decl in N2.
      apply andb_true_iff in N2. destruct N2 as [Nn _].
      change (print_ty FI64) with "i64" in E.
      destruct (no_delim_split "i64" n r1 (print_targs args ++ r2) eq_refl (name_ok_no_delim _ Nn)
                  (tail_ok_starts _ T1) (print_targs_starts _ _ (tail_ok_starts _ T2)) E) as [En _].
      apply (name_ok_not_i64 _ Nn). auto.
  - rewrite ty_names_ok_decl in N1. apply andb_true_iff in N1. destruct N1 as [Nn Na].
    destruct t2 as [|m brgs].
    + exfalso. rewrite print_ty_decl, sapp_assoc in E. change (print_ty FI64) with "i64" in E.
      destruct (no_delim_split n "i64" (print_targs args ++ r1) r2 (name_ok_no_delim _ Nn) eq_refl
                  (print_targs_starts _ _ (tail_ok_starts _ T1)) (tail_ok_starts _ T2) E) as [En _].
      apply (name_ok_not_i64 _ Nn). auto.
    + rewrite ty_names_ok_decl in N2. apply andb_true_iff in N2. destruct N2 as [Nm Nb].
      rewrite !print_ty_decl, !sapp_assoc in E.
      destruct (no_delim_split n m _ _ (name_ok_no_delim _ Nn) (name_ok_no_delim _ Nm)
                  (print_targs_starts _ _ (tail_ok_starts _ T1)) (print_targs_starts _ _ (tail_ok_starts _ T2)) E) as [-> E2].
      destruct (print_targs_inj_gen args H brgs r1 r2 Na Nb T1 T2 E2) as [-> ->]. auto.
Qed.

Theorem print_ty_inj : forall t1 t2, ty_names_ok t1 = true -> ty_names_ok t2 = true -> print_ty t1 = print_ty t2 -> t1 = t2.
Proof.
  intros t1 t2 N1 N2 E. destruct (print_ty_inj_gen t1 t2 "" "" N1 N2 eq_refl eq_refl) as [H _]; [|exact H].
  rewrite !sapp_nil_r. exact E.
Qed.
Lemma Forall_inj_at : forall l, Forall inj_at l.
Proof. intros l. apply Forall_forall. intros t _. apply print_ty_inj_gen. Qed.
Theorem print_targs_inj : forall l1 l2, tys_names_ok l1 = true -> tys_names_ok l2 = true ->
  print_targs l1 = print_targs l2 -> l1 = l2.
Proof.
  intros l1 l2 N1 N2 E.
  destruct (print_targs_inj_gen l1 (Forall_inj_at l1) l2 "" "" N1 N2 eq_refl eq_refl) as [H _]; [|exact H].
  rewrite !sapp_nil_r. exact E.
Qed.

(* instance names: head and arguments are determined by the printed name *)
Theorem instance_name_inj : forall n1 a1 n2 a2,
  no_delim n1 = true -> no_delim n2 = true -> tys_names_ok a1 = true -> tys_names_ok a2 = true ->
  (n1 ++ print_targs a1 = n2 ++ print_targs a2)%string -> n1 = n2 /\ a1 = a2.
Proof.
  intros n1 a1 n2 a2 H1 H2 N1 N2 E.
  destruct (no_delim_split n1 n2 _ _ H1 H2 (print_targs_starts' a1) (print_targs_starts' a2) E) as [-> E2].
  split; [reflexivity|]. apply print_targs_inj; assumption.
Qed.

(* ---------- str::replace(print_targs targs, "") on an instance name ---------- *)
Lemma prefix_refl : forall s, String.prefix s s = true.
Proof. induction s; simpl; [reflexivity|]. destruct (ascii_dec a a); [assumption|congruence]. Qed.
Lemma prefix_first : forall p c r, String.prefix p (String c r) = true -> p = "" \/ exists q, p = String c q.
Proof.
  intros [|d q] c r H; [left; reflexivity|]. right. simpl in H.
  destruct (ascii_dec d c); [subst; eauto|discriminate].
Qed.
Lemma str_remove_go_skip_all : forall pat plen s k, String.length s <= k -> str_remove_go pat plen s k = "".
Proof.
  induction s as [|c r IH]; intros k H; [reflexivity|]. simpl in *. destruct k; [lia|]. apply IH. lia.
Qed.
(* the head contains no "[" and a non-empty suffix starts with "[" *)
Lemma str_remove_go_head : forall pat plen n,
  no_delim n = true -> (exists q, pat = String "["%char q) -> plen = String.length pat ->
  str_remove_go pat plen (n ++ pat) 0 = n.
Proof.
  intros pat plen n Hn [q ->] ->. induction n as [|c r IH].
  - cbn [append str_remove_go]. rewrite prefix_refl.
    apply str_remove_go_skip_all. simpl. lia.
  - simpl in Hn. apply andb_true_iff in Hn. destruct Hn as [Hc Hr].
    simpl append. cbn [str_remove_go].
    destruct (String.prefix (String "[" q) (String c (r ++ String "[" q))) eqn:Ep.
    + exfalso. apply prefix_first in Ep. destruct Ep as [Ep|[q' Ep]]; [discriminate|]. inversion Ep; subst.
      simpl in Hc. discriminate.
    + rewrite IH by assumption. reflexivity.
Qed.
Theorem str_remove_instance_name : forall n targs,
  no_delim n = true -> str_remove (n ++ print_targs targs) (print_targs targs) = n.
Proof.
  intros n targs Hn. destruct targs as [|a l].
  - simpl. apply sapp_nil_r.
  - unfold str_remove. unfold print_targs. rewrite print_list_cons.
    change ("[" ++ print_ty a ++ items l)%string with (String "["%char (print_ty a ++ items l)).
    apply str_remove_go_head; [assumption|eauto|reflexivity].
Qed.

(* ---------- the condition is needed ---------- *)
Example print_collision_without_name_ok :
  print_ty (FDecl "List" [FI64]) = print_ty (FDecl "List[i64]" [])
  /\ print_ty (FDecl "P" [FDecl "A" []; FDecl "B" []]) = print_ty (FDecl "P" [FDecl "A, B" []])
  /\ print_ty (FDecl "P" [FI64]) = print_ty (FDecl "P" [FDecl "i64" []]).
Proof. repeat split. Qed.
Example print_example : print_ty (FDecl "Pair" [FI64; FDecl "List" [FDecl "List" [FI64]]]) = "Pair[i64, List[List[i64]]]".
Proof. reflexivity. Qed.
