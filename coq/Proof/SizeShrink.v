(* C19, shrinking (focused Core -> AxCut): the total size of the output (the statement plus every
   definition lifted while producing it) is bounded by a quadratic polynomial in the weighted size
   of the input whose coefficients depend only on the type declarations:
       F w = w * (a + b * w),   a = 2 + X * (2 + A),  b = 2 * (1 + X)
   X = largest number of xtors of a declared type, A = largest xtor arity.
   Reason (the heart is [lift]): a critical pair at a declared type copies the EXPANDED side into
   every clause of the eta-expansion; a non-leaf expanded side is first replaced by a call whose size
   is 1 + the number of its free variables (<= 2 * its weighted size), and a leaf is a statement of
   size <= its own weight; the renamings performed on the way preserve the weight. *)
From Coq Require Import String List ZArith NArith Bool Lia.
From SCC Require Import Base.Sexp Lang.SynUtil Lang.CoreSyn Lang.AxSyn Lang.AxSize Lang.FsSize
     Model.Shrink Model.SizeDefs Proof.LinBasics Proof.ShrinkProof Proof.SizeLin.
Import ListNotations.
Open Scope list_scope.
Open Scope N_scope.
Local Arguments N.add : simpl never.
Local Arguments N.mul : simpl never.
Local Arguments N.of_nat : simpl never.
Local Arguments len : simpl never.

(* lens of SizeLin, through maps as well *)
Ltac lensm := repeat (progress (rewrite ?len_cons, ?len_app, ?len_map)); lnil.
Ltac lens_in H := repeat (progress (rewrite ?len_cons, ?len_app, ?len_map in H)); repeat match type of H with context [@len ?X []] => change (@len X []) with 0 in H end.

Lemma fs_wterm_xcase : forall c cls t, fs_wterm (FsXCase c cls t) = 1 + fs_wclauses cls.
Proof. intros; simpl; f_equal; induction cls as [|y r IH]; simpl; auto; rewrite IH; auto. Qed.
Lemma fs_wstmt_pos : forall s, 1 <= fs_wstmt s.
Proof. destruct s; simpl; lia. Qed.
Lemma fs_wterm_pos : forall t, 1 <= fs_wterm t.
Proof. destruct t; simpl; lia. Qed.

Lemma fs_w_subst_all : forall sub,
  (forall t, fs_wterm (subst_term sub t) = fs_wterm t) /\
  (forall c, fs_wclause (subst_clause sub c) = fs_wclause c) /\
  (forall s, fs_wstmt (subst_stmt sub s) = fs_wstmt s).
Proof.
  intro sub. apply fs_mutind; intros; cbn [subst_term subst_clause subst_stmt fs_wterm fs_wclause fs_wstmt]; try reflexivity; try congruence.
  - unfold subst_ctx. rewrite len_map. reflexivity.
  - change (fs_wterm (FsXCase c ((fix go (l : list fsclause) : list fsclause :=
              match l with [] => [] | y :: r => subst_clause sub y :: go r end) cls) t) = fs_wterm (FsXCase c cls t)).
    rewrite !fs_wterm_xcase. f_equal.
    induction H as [|y r Hy Hr IH]; simpl; [reflexivity|]. rewrite Hy, IH. reflexivity.
  - unfold subst_ctx. rewrite len_map. reflexivity.
Qed.
Lemma fs_w_subst : forall sub s, fs_wstmt (subst_stmt sub s) = fs_wstmt s.
Proof. intros. apply (fs_w_subst_all sub). Qed.

Lemma ax_size_cls_subst : forall sub cls,
  Forall (fun c => ax_size (ax_subst sub (cl_body c)) = ax_size (cl_body c)) cls ->
  ax_size_cls (ax_subst_cls sub cls) = ax_size_cls cls.
Proof.
  induction cls as [|[[x cc] b] r IH]; intros HF; simpl; auto.
  inversion HF; subst. unfold cl_body in *; simpl in *. rewrite H1, IH; auto.
Qed.
Lemma ax_size_subst_ax : forall sub s, ax_size (ax_subst sub s) = ax_size s.
Proof.
  intros sub s; induction s using stmt_ind2.
  - simpl. rewrite IHs, len_map. auto.
  - simpl. unfold ax_subst_ctx. rewrite len_map. auto.
  - simpl. unfold ax_subst_ctx. rewrite IHs, len_map. auto.
  - rewrite ax_subst_switch, !ax_size_switch, ax_size_cls_subst; auto.
  - rewrite ax_subst_create, !ax_size_create, ax_size_cls_subst, IHs; auto.
    destruct env; simpl; unfold ax_subst_ctx; rewrite ?len_map; auto.
  - simpl. unfold ax_subst_ctx. rewrite len_map. auto.
  - simpl. rewrite IHs; auto.
  - simpl. rewrite IHs; auto.
  - simpl. rewrite IHs; auto.
  - simpl. rewrite IHs1, IHs2; auto.
  - reflexivity.
Qed.

Lemma bs_insert_len : forall b l, len (bs_insert b l) <= 1 + len l.
Proof.
  induction l as [|x r IH]; simpl; lensm; [lia|].
  destruct (cbinding_compare b x); lensm; lia.
Qed.
Lemma bs_remove_len : forall b l, len (bs_remove b l) <= len l.
Proof.
  induction l as [|x r IH]; simpl; lensm; [lia|].
  destruct (cbinding_compare b x); lensm; lia.
Qed.
Lemma bs_extend_len : forall bs l, len (bs_extend bs l) <= len bs + len l.
Proof.
  unfold bs_extend. induction bs as [|b r IH]; intros l; simpl; lensm; [lia|].
  specialize (IH (bs_insert b l)). pose proof (bs_insert_len b l). lia.
Qed.
Lemma bs_remove_all_len : forall bs l, len (bs_remove_all bs l) <= len l.
Proof.
  unfold bs_remove_all. induction bs as [|b r IH]; intros l; simpl; [lia|].
  specialize (IH (bs_remove b l)). pose proof (bs_remove_len b l). lia.
Qed.
Lemma tfv_len_all :
  (forall t vars, len (tfv_term t vars) <= len vars + 2 * fs_wterm t) /\
  (forall c vars, len (tfv_clause c vars) <= len vars + 2 * fs_wclause c) /\
  (forall s vars, len (tfv_stmt s vars) <= len vars + 2 * fs_wstmt s).
Proof.
  apply fs_mutind; intros; cbn [tfv_term tfv_clause tfv_stmt fs_wterm fs_wclause fs_wstmt].
  - pose proof (bs_insert_len (mkcb v c t) vars). lia.
  - lia.
  - pose proof (bs_insert_len (i64_prd a) vars). pose proof (bs_insert_len (i64_prd b) (bs_insert (i64_prd a) vars)). lia.
  - match goal with |- len (bs_remove ?b ?l) <= _ => pose proof (bs_remove_len b l) end. specialize (H vars). lia.
  - pose proof (bs_extend_len args vars). lia.
  - change (len ((fix go (l : list fsclause) (vars : bset) : bset :=
         match l with [] => vars | y :: r => go r (tfv_clause y vars) end) cls vars) <= len vars + 2 * fs_wterm (FsXCase c cls t)).
    rewrite fs_wterm_xcase. revert vars.
    induction H as [|y r Hy Hr IH]; intros vars; simpl; [lia|].
    specialize (IH (tfv_clause y vars)). specialize (Hy vars). lia.
  - match goal with |- len (bs_remove_all ?b ?l) <= _ => pose proof (bs_remove_all_len b l) end. specialize (H vars). lia.
  - specialize (H vars). specialize (H0 (tfv_term p vars)). lia.
  - set (v1 := bs_insert (i64_prd a) vars).
    set (v2 := match b with Some b' => bs_insert (i64_prd b') v1 | None => v1 end).
    assert (len v2 <= 2 + len vars).
    { unfold v2, v1. pose proof (bs_insert_len (i64_prd a) vars). destruct b as [b'|]; [pose proof (bs_insert_len (i64_prd b') (bs_insert (i64_prd a) vars))|]; lia. }
    specialize (H v2). specialize (H0 (tfv_stmt t v2)). lia.
  - pose proof (bs_insert_len (i64_prd a) vars). specialize (H (bs_insert (i64_prd a) vars)). lia.
  - pose proof (bs_extend_len args vars). lia.
  - pose proof (bs_insert_len (i64_prd v) vars). lia.
Qed.
Lemma typed_free_vars_len : forall s, len (typed_free_vars s) <= 2 * fs_wstmt s.
Proof. intros s. unfold typed_free_vars. destruct tfv_len_all as [_ [_ H]]. specialize (H s []). lens_in H. lia. Qed.

Section Poly.
Variables X A : N.
Definition sh_a : N := 2 + X * (2 + A).
Definition sh_b : N := 2 * (1 + X).
Definition sh_F (w : N) : N := w * (sh_a + sh_b * w).

Lemma sh_F_add : forall x y, sh_F x + sh_F y <= sh_F (x + y).
Proof.
  intros. unfold sh_F. generalize sh_a sh_b. intros a b.
  replace ((x + y) * (a + b * (x + y))) with (x * (a + b * x) + y * (a + b * y) + 2 * b * x * y) by ring.
  pose proof (N.le_0_l (2 * b * x * y)). lia.
Qed.
Lemma sh_F_node : forall x c, sh_F x + c * sh_a + 2 * sh_b * c * x <= sh_F (x + c).
Proof.
  intros. unfold sh_F. generalize sh_a sh_b. intros a b.
  replace ((x + c) * (a + b * (x + c))) with (x * (a + b * x) + c * a + 2 * b * c * x + b * c * c) by ring.
  pose proof (N.le_0_l (b * c * c)). lia.
Qed.
Lemma sh_F_mono : forall x y, x <= y -> sh_F x <= sh_F y.
Proof. intros x y H. replace y with (x + (y - x)) by lia. pose proof (sh_F_add x (y - x)). lia. Qed.
Lemma sh_F_ge : forall x, 2 * x <= sh_F x.
Proof.
  intros. unfold sh_F, sh_a. generalize sh_b. intros b.
  replace (x * (2 + X * (2 + A) + b * x)) with (2 * x + (x * X * (2 + A) + x * b * x)) by ring. lia.
Qed.
End Poly.

Lemma max_list_in : forall l x, In x l -> x <= max_list l.
Proof. induction l as [|y r IH]; intros x Hin; simpl in *; [contradiction|]. destruct Hin as [->|Hin]; [lia|]. specialize (IH x Hin). lia. Qed.

Lemma lookup_decl_bounds : forall n ds d, lookup_type_declaration n ds = Some d ->
  len (ctxtors d) <= decl_xtors ds /\ Forall (fun x => len (cxargs x) <= decl_arity ds) (ctxtors d).
Proof.
  intros n ds d H. unfold lookup_type_declaration in H. apply find_some in H as [Hin _]. split.
  - apply max_list_in. apply in_map_iff. exists d; auto.
  - apply Forall_forall. intros x Hx.
    assert (len (cxargs x) <= max_list (map (fun x => len (cxargs x)) (ctxtors d))).
    { apply max_list_in. apply in_map_iff. exists x; auto. }
    assert (max_list (map (fun x => len (cxargs x)) (ctxtors d)) <= decl_arity ds).
    { apply max_list_in. apply in_map_iff. exists d; auto. }
    lia.
Qed.

Definition xs_ok (E : senv) (xs : list (cident * cctx)) : Prop :=
  len xs <= env_X E /\ Forall (fun p => len (snd p) <= env_A E) xs.
Lemma xtors_of_bounds : forall E ty name xs, xtors_of E ty name = SOk xs -> xs_ok E xs.
Proof.
  intros E ty name xs H. unfold xtors_of in H.
  destruct (lookup_type_declaration name _) as [d|] eqn:L; [|discriminate]. inversion H; subst; clear H.
  apply lookup_decl_bounds in L as [L1 L2]. unfold xs_ok, env_X, env_A. rewrite len_map. split.
  - destruct (is_codata (e_codata E) ty); lia.
  - apply Forall_forall. intros p Hp. apply in_map_iff in Hp as [x [<- Hx]]. simpl.
    rewrite Forall_forall in L2. specialize (L2 x Hx). destruct (is_codata (e_codata E) ty); lia.
Qed.

Definition Lsz (st : sst) : N := ax_size_defs (s_lifted st).

Lemma fresh_env_size : forall bs st env st1, fresh_env bs st = (env, st1) -> len env = len bs /\ Lsz st1 = Lsz st.
Proof.
  induction bs as [|b r IH]; intros st env st1 H; simpl in H.
  - inversion H; subst. auto.
  - destruct (fresh_env r _) as [r' st2] eqn:Hr. inversion H; subst; clear H.
    apply IH in Hr as [H1 H2]. lensm. split; [lia|exact H2].
Qed.

Lemma shrink_context_len : forall codata c, len (shrink_context codata c) = len c.
Proof. intros. unfold shrink_context. apply len_map. Qed.

Lemma unknown_clauses_size : forall E ve tty xs st cls st',
  unknown_clauses (e_codata E) ve tty xs st = (cls, st') -> Forall (fun p => len (snd p) <= env_A E) xs ->
  ax_size_cls cls <= len xs * (2 + 2 * env_A E) /\ Lsz st' = Lsz st.
Proof.
  induction xs as [|[xt args] r IH]; intros st cls st' H HF; simpl in H.
  - inversion H; subst. simpl. lensm. split; [lia|auto].
  - destruct (fresh_env _ _) as [env st1] eqn:He.
    destruct (unknown_clauses _ _ _ r _) as [r' st2] eqn:Hr. inversion H; subst; clear H.
    inversion HF as [|? ? Ha HF']; subst. simpl in Ha.
    apply fresh_env_size in He as [E1 E2]. rewrite shrink_context_len in E1.
    apply IH in Hr as [H1 H2]; auto. simpl. lensm. split; [nia|congruence].
Qed.

Lemma critical_clauses_size : forall E ve tty se xs st cls st',
  critical_clauses (e_codata E) ve tty se xs st = (cls, st') -> Forall (fun p => len (snd p) <= env_A E) xs ->
  ax_size_cls cls <= len xs * (2 + 2 * env_A E + ax_size se) /\ Lsz st' = Lsz st.
Proof.
  induction xs as [|[xt args] r IH]; intros st cls st' H HF; simpl in H.
  - inversion H; subst. simpl. lensm. split; [lia|auto].
  - destruct (fresh_env _ _) as [env sta] eqn:He.
    destruct (critical_clauses _ _ _ _ r _) as [r' stc] eqn:Hr. inversion H; subst; clear H.
    inversion HF as [|? ? Ha HF']; subst. simpl in Ha.
    apply fresh_env_size in He as [E1 E2]. rewrite shrink_context_len in E1.
    apply IH in Hr as [H1 H2]; auto. simpl. rewrite ax_size_subst_ax. lensm. split; [nia|].
    rewrite H2. unfold Lsz. simpl. exact E2.
Qed.

Section Step.
Variable rec : fsstmt -> sst -> shres (stmt * sst).
Variable E : senv.
Let F := sh_F (env_X E) (env_A E).

(* the invariant: total output (statement + newly lifted definitions) <= F (weight); a leaf statement
   becomes a statement no bigger than its weight and lifts nothing *)
Definition size_inv (s : fsstmt) (st : sst) (r : stmt) (st' : sst) : Prop :=
  ax_size r + Lsz st' <= Lsz st + F (fs_wstmt s) /\
  (is_leaf_statement s = true -> ax_size r <= fs_wstmt s /\ Lsz st' = Lsz st).

Hypothesis Hrec : forall s st r st', rec s st = SOk (r, st') -> size_inv s st r st'.

Lemma F_add : forall x y, F x + F y <= F (x + y).
Proof. apply sh_F_add. Qed.
Lemma F_mono : forall x y, x <= y -> F x <= F y.
Proof. apply sh_F_mono. Qed.
Lemma F_ge : forall x, 2 * x <= F x.
Proof. apply sh_F_ge. Qed.

Lemma shrink_clauses_size : forall cls st r st',
  shrink_clauses rec E cls st = SOk (r, st') ->
  ax_size_cls r + Lsz st' <= Lsz st + F (fs_wclauses cls).
Proof.
  induction cls as [|[c x cx body] rest IH]; intros st r st' H; simpl in H.
  - inversion H; subst. simpl. unfold F, sh_F. lia.
  - destruct (rec body st) as [[b st1]|] eqn:Hb; [|discriminate]. cbn [sbind] in H.
    destruct (shrink_clauses rec E rest st1) as [[r' st2]|] eqn:Hr; [|discriminate]. cbn [sbind] in H.
    inversion H; subst; clear H. apply Hrec in Hb as [Hb _]. apply IH in Hr.
    simpl. rewrite shrink_context_len.
    pose proof (F_add (1 + len cx + fs_wstmt body) (fs_wclauses rest)).
    pose proof (sh_F_node (env_X E) (env_A E) (fs_wstmt body) (1 + len cx)) as Hn. fold F in Hn.
    replace (fs_wstmt body + (1 + len cx)) with (1 + len cx + fs_wstmt body) in Hn by lia.
    unfold sh_a in Hn. nia.
Qed.

Lemma fs_wclause_find : forall (f : fsclause -> bool) cls c, find f cls = Some c -> fs_wstmt (clause_body c) <= fs_wclauses cls.
Proof.
  induction cls as [|y r IH]; intros c H; simpl in H; [discriminate|].
  destruct (f y).
  - inversion H; subst. destruct c; simpl. lia.
  - apply IH in H. simpl. lia.
Qed.

Lemma lift_size : forall s st r st',
  lift rec E s st = SOk (r, st') ->
  ax_size r = 1 + len (typed_free_vars s) /\
  ax_size r + Lsz st' <= Lsz st + F (fs_wstmt s) + 2 + 2 * len (typed_free_vars s).
Proof.
  intros s st r st' H. apply lift_closed in H. cbv zeta in H.
  destruct H as (_ & _ & _ & Hsig & label & body & st3 & _ & _ & _ & -> & Hb & ->).
  apply Hrec in Hb as [Hb _]. rewrite fs_w_subst in Hb.
  assert (Hl : len (fresh_params (typed_free_vars s) (s_max st)) = len (typed_free_vars s)).
  { clear. generalize (s_max st). induction (typed_free_vars s) as [|b r IH]; intros m; simpl; lensm; [reflexivity|]. rewrite IH. reflexivity. }
  cbn [ax_size]. rewrite shrink_context_len. split; [reflexivity|].
  unfold Lsz in *. cbn [s_lifted ax_size_defs] in *. unfold ax_size_def. cbn [dctx dbody].
  rewrite shrink_context_len, Hl. lia.
Qed.

Lemma invoke_ret_size : forall v x, ax_size (invoke_ret v x) = 2.
Proof. reflexivity. Qed.

Lemma critical_size : forall vp sp vc sc ty st r st',
  shrink_critical_pairs rec E vp sp vc sc ty st = SOk (r, st') ->
  ax_size r + Lsz st' <= Lsz st + F (3 + fs_wstmt sp + fs_wstmt sc).
Proof.
  intros vp sp vc sc ty st r st' H. unfold shrink_critical_pairs in H. destruct ty as [|name].
  - (* i64: both bodies once *)
    destruct (rec sc st) as [[body st1]|] eqn:H1; [|discriminate]. cbn [sbind] in H.
    destruct (rec sp st1) as [[next st2]|] eqn:H2; [|discriminate]. cbn [sbind] in H.
    inversion H; subst; clear H. apply Hrec in H1 as [H1 _]. apply Hrec in H2 as [H2 _].
    rewrite ax_size_create. cbn [ax_size_cls]. lensm.
    pose proof (F_add (fs_wstmt sp) (fs_wstmt sc)).
    pose proof (sh_F_node (env_X E) (env_A E) (fs_wstmt sp + fs_wstmt sc) 3) as Hn. fold F in Hn.
    replace (fs_wstmt sp + fs_wstmt sc + 3) with (3 + fs_wstmt sp + fs_wstmt sc) in Hn by lia.
    unfold sh_a in Hn. nia.
  - destruct (xtors_of E (CDecl name) name) as [xs|] eqn:Hx; [|discriminate]. cbn [sbind] in H.
    apply xtors_of_bounds in Hx as [HX HA].
    (* the two orientations are symmetric: (keep, expand) *)
    assert (G : forall keep expand ve vk,
      (dos (se, st1) <- (if Nat.leb (List.length xs) 1 || is_leaf_statement expand then rec expand st else lift rec E expand st);
       let '(clauses, st2) := critical_clauses (e_codata E) ve (shrink_ty (CDecl name)) se xs st1 in
       dos (next, st3) <- rec keep st2;
       SOk (Create (shrink_identifier vk) (Decl (shrink_identifier name)) None clauses next, st3)) = SOk (r, st') ->
      ax_size r + Lsz st' <= Lsz st + F (3 + fs_wstmt keep + fs_wstmt expand)).
    { clear H. intros keep expand ve vk H.
      pose proof (F_add (fs_wstmt keep) (fs_wstmt expand)) as Hadd.
      pose proof (sh_F_node (env_X E) (env_A E) (fs_wstmt keep + fs_wstmt expand) 3) as Hn. fold F in Hn.
      replace (fs_wstmt keep + fs_wstmt expand + 3) with (3 + fs_wstmt keep + fs_wstmt expand) in Hn by lia.
      unfold sh_a, sh_b in Hn.
      (* the clauses cost len xs * (2 + 2 A + |se|), |se| the size of the expanded side as copied.  The only product of
         two unknowns is len xs * |se|: each case bounds it by X * (a multiple of the weight of `expand`), which the cross
         term 2 * sh_b * 3 * weight of Hn pays; the other summands are linear and paid by 3 * sh_a *)
      destruct (Nat.leb (List.length xs) 1) eqn:Hle; [|destruct (is_leaf_statement expand) eqn:Hleaf]; cbn [orb] in H.
      - (* at most one xtor: the expanded side is copied at most once *)
        destruct (rec expand st) as [[se st1]|] eqn:H1; [|discriminate]. cbn [sbind] in H.
        destruct (critical_clauses _ _ _ _ _ _) as [cls st2] eqn:Hc.
        destruct (rec keep st2) as [[next st3]|] eqn:H2; [|discriminate]. cbn [sbind] in H. inversion H; subst; clear H.
        apply Hrec in H1 as [H1 _]. apply Hrec in H2 as [H2 _]. apply critical_clauses_size in Hc as [Hc1 Hc2]; auto.
        apply Nat.leb_le in Hle. assert (len xs <= 1) by (unfold len; lia).
        assert (len xs * ax_size se <= ax_size se) by nia.
        rewrite ax_size_create. nia.
      - (* leaf: copied into every clause, but no bigger than its weight *)
        destruct (rec expand st) as [[se st1]|] eqn:H1; [|discriminate]. cbn [sbind] in H.
        destruct (critical_clauses _ _ _ _ _ _) as [cls st2] eqn:Hc.
        destruct (rec keep st2) as [[next st3]|] eqn:H2; [|discriminate]. cbn [sbind] in H. inversion H; subst; clear H.
        apply Hrec in H1 as [_ H1]. destruct (H1 Hleaf) as [H1a H1b].
        apply Hrec in H2 as [H2 _]. apply critical_clauses_size in Hc as [Hc1 Hc2]; auto.
        assert (len xs * ax_size se <= env_X E * fs_wstmt expand) by nia.
        rewrite ax_size_create. nia.
      - (* shared: every clause calls the lifted definition *)
        destruct (lift rec E expand st) as [[se st1]|] eqn:H1; [|discriminate]. cbn [sbind] in H.
        destruct (critical_clauses _ _ _ _ _ _) as [cls st2] eqn:Hc.
        destruct (rec keep st2) as [[next st3]|] eqn:H2; [|discriminate]. cbn [sbind] in H. inversion H; subst; clear H.
        apply lift_size in H1 as [H1a H1b]. pose proof (typed_free_vars_len expand) as Hfv.
        apply Hrec in H2 as [H2 _]. apply critical_clauses_size in Hc as [Hc1 Hc2]; auto.
        assert (len xs * ax_size se <= env_X E * (1 + 2 * fs_wstmt expand)) by nia.
        rewrite ax_size_create. nia. }
    destruct (is_codata (e_codata E) (CDecl name)); cbv beta iota in H.
    + apply G in H. replace (3 + fs_wstmt sp + fs_wstmt sc) with (3 + fs_wstmt sc + fs_wstmt sp) by lia. exact H.
    + apply G in H. exact H.
Qed.

Lemma unknown_size : forall vp vc ty st r st',
  shrink_unknown_cuts E vp vc ty st = SOk (r, st') -> ax_size r + Lsz st' <= Lsz st + F 3.
Proof.
  intros vp vc ty st r st' H. unfold shrink_unknown_cuts in H.
  assert (HF3 : 3 * sh_a (env_X E) (env_A E) <= F 3).
  { unfold F, sh_F. lia. }
  unfold sh_a in HF3.
  destruct ty as [|name].
  - inversion H; subst. rewrite invoke_ret_size. lia.
  - destruct (xtors_of E (CDecl name) name) as [xs|] eqn:Hx; [|discriminate]. cbn [sbind] in H.
    apply xtors_of_bounds in Hx as [HX HA].
    destruct (is_codata (e_codata E) (CDecl name));
      (destruct (unknown_clauses _ _ _ _ _) as [cls st1] eqn:Hc; inversion H; subst; clear H;
       apply unknown_clauses_size in Hc as [Hc1 Hc2]; auto; rewrite ax_size_switch; nia).
Qed.

(* a node of own weight c above sub-statements of total weight x whose outputs fit F x *)
Lemma F_node : forall x c, F x + c * (2 + env_X E * (2 + env_A E)) <= F (x + c).
Proof.
  intros. pose proof (sh_F_node (env_X E) (env_A E) x c) as Hn. fold F in Hn. unfold sh_a in Hn.
  pose proof (N.le_0_l (2 * sh_b (env_X E) * c * x)). lia.
Qed.

Lemma cut_size : forall p ty c st r st',
  shrink_cut rec E p ty c st = SOk (r, st') -> size_inv (FsCut p ty c) st r st'.
Proof.
  intros p ty c st r st' H. unfold size_inv. cbn [fs_wstmt].
  destruct p, c; cbn [shrink_cut] in H; try discriminate; rewrite ?fs_wterm_xcase; cbn [is_leaf_statement fs_wterm].
  all: try (split; [|discriminate]).
  - (* XVar / XVar: unknown cut *)
    apply unknown_size in H. replace (1 + 1 + 1) with 3 by lia. exact H.
  - (* XVar / Mu: renaming *)
    unfold shrink_renaming in H. apply Hrec in H as [H _]. rewrite fs_w_subst in H.
    pose proof (F_mono (fs_wstmt s) (1 + 1 + (1 + fs_wstmt s)) ltac:(lia)). lia.
  - (* XVar / Xtor: invoke (a leaf) *)
    inversion H; subst. cbn [ax_size]. rewrite shrink_context_len.
    pose proof (F_ge (1 + 1 + (1 + len args))). split; [lia|]. intros _. split; [lia|reflexivity].
  - (* XVar / XCase: switch *)
    destruct (shrink_clauses rec E cls st) as [[cls' st1]|] eqn:Hc; [|discriminate]. cbn [sbind] in H. inversion H; subst; clear H.
    apply shrink_clauses_size in Hc. rewrite ax_size_switch.
    pose proof (F_node (fs_wclauses cls) 3). replace (fs_wclauses cls + 3) with (1 + 1 + (1 + fs_wclauses cls)) in * by lia. lia.
  - (* Lit / XVar *)
    destruct (fresh_var st) as [x st1] eqn:Hf. inversion H; subst; clear H. cbn [ax_size]. rewrite invoke_ret_size.
    unfold fresh_var, fresh_identifier in Hf. inversion Hf; subst. unfold Lsz; cbn [s_lifted].
    pose proof (F_ge (1 + 1 + 1)). lia.
  - (* Lit / Mu *)
    destruct (rec s st) as [[next st1]|] eqn:Hr; [|discriminate]. cbn [sbind] in H. inversion H; subst; clear H.
    apply Hrec in Hr as [Hr _]. cbn [ax_size].
    pose proof (F_node (fs_wstmt s) 3). replace (fs_wstmt s + 3) with (1 + 1 + (1 + fs_wstmt s)) in * by lia. lia.
  - (* Op / XVar *)
    destruct (fresh_var st) as [x st1] eqn:Hf. inversion H; subst; clear H. cbn [ax_size]. rewrite invoke_ret_size.
    unfold fresh_var, fresh_identifier in Hf. inversion Hf; subst. unfold Lsz; cbn [s_lifted].
    pose proof (F_ge (1 + 1 + 1)). lia.
  - (* Op / Mu *)
    destruct (rec s st) as [[next st1]|] eqn:Hr; [|discriminate]. cbn [sbind] in H. inversion H; subst; clear H.
    apply Hrec in Hr as [Hr _]. cbn [ax_size].
    pose proof (F_node (fs_wstmt s) 3). replace (fs_wstmt s + 3) with (1 + 1 + (1 + fs_wstmt s)) in * by lia. lia.
  - (* Mu / XVar: renaming *)
    unfold shrink_renaming in H. apply Hrec in H as [H _]. rewrite fs_w_subst in H.
    pose proof (F_mono (fs_wstmt s) (1 + (1 + fs_wstmt s) + 1) ltac:(lia)). lia.
  - (* Mu / Mu: critical pair *)
    apply critical_size in H. replace (1 + (1 + fs_wstmt s) + (1 + fs_wstmt s0)) with (3 + fs_wstmt s + fs_wstmt s0) by lia. exact H.
  - (* Mu / Xtor: let *)
    destruct (rec s st) as [[next st1]|] eqn:Hr; [|discriminate]. cbn [sbind] in H. inversion H; subst; clear H.
    apply Hrec in Hr as [Hr _]. cbn [ax_size]. rewrite shrink_context_len.
    pose proof (F_node (fs_wstmt s) (3 + len args)). replace (fs_wstmt s + (3 + len args)) with (1 + (1 + fs_wstmt s) + (1 + len args)) in * by lia. nia.
  - (* Mu / XCase: create *)
    destruct (shrink_clauses rec E cls st) as [[cls' st1]|] eqn:Hc; [|discriminate]. cbn [sbind] in H.
    destruct (rec s st1) as [[next st2]|] eqn:Hr; [|discriminate]. cbn [sbind] in H. inversion H; subst; clear H.
    apply shrink_clauses_size in Hc. apply Hrec in Hr as [Hr _]. rewrite ax_size_create.
    pose proof (F_add (fs_wstmt s) (fs_wclauses cls)).
    pose proof (F_node (fs_wstmt s + fs_wclauses cls) 3).
    replace (fs_wstmt s + fs_wclauses cls + 3) with (1 + (1 + fs_wstmt s) + (1 + fs_wclauses cls)) in * by lia. lia.
  - (* Xtor / XVar: invoke (a leaf) *)
    inversion H; subst. cbn [ax_size]. rewrite shrink_context_len.
    pose proof (F_ge (1 + (1 + len args) + 1)). split; [lia|]. intros _. split; [lia|reflexivity].
  - (* Xtor / Mu: let *)
    destruct (rec s st) as [[next st1]|] eqn:Hr; [|discriminate]. cbn [sbind] in H. inversion H; subst; clear H.
    apply Hrec in Hr as [Hr _]. cbn [ax_size]. rewrite shrink_context_len.
    pose proof (F_node (fs_wstmt s) (3 + len args)). replace (fs_wstmt s + (3 + len args)) with (1 + (1 + len args) + (1 + fs_wstmt s)) in * by lia. nia.
  - (* Xtor / XCase: known cut *)
    unfold shrink_known_cuts in H. destruct (find _ cls) as [cl|] eqn:Hf; [|discriminate].
    apply fs_wclause_find in Hf. apply Hrec in H as [H _]. rewrite fs_w_subst in H.
    pose proof (F_mono (fs_wstmt (clause_body cl)) (1 + (1 + len args) + (1 + fs_wclauses cls)) ltac:(lia)). lia.
  - (* XCase / XVar: switch *)
    destruct (shrink_clauses rec E cls st) as [[cls' st1]|] eqn:Hc; [|discriminate]. cbn [sbind] in H. inversion H; subst; clear H.
    apply shrink_clauses_size in Hc. rewrite ax_size_switch.
    pose proof (F_node (fs_wclauses cls) 3). replace (fs_wclauses cls + 3) with (1 + (1 + fs_wclauses cls) + 1) in * by lia. lia.
  - (* XCase / Mu: create *)
    destruct (shrink_clauses rec E cls st) as [[cls' st1]|] eqn:Hc; [|discriminate]. cbn [sbind] in H.
    destruct (rec s st1) as [[next st2]|] eqn:Hr; [|discriminate]. cbn [sbind] in H. inversion H; subst; clear H.
    apply shrink_clauses_size in Hc. apply Hrec in Hr as [Hr _]. rewrite ax_size_create.
    pose proof (F_add (fs_wstmt s) (fs_wclauses cls)).
    pose proof (F_node (fs_wstmt s + fs_wclauses cls) 3).
    replace (fs_wstmt s + fs_wclauses cls + 3) with (1 + (1 + fs_wclauses cls) + (1 + fs_wstmt s)) in * by lia. lia.
  - (* XCase / Xtor: known cut *)
    unfold shrink_known_cuts in H. destruct (find _ cls) as [cl|] eqn:Hf; [|discriminate].
    apply fs_wclause_find in Hf. apply Hrec in H as [H _]. rewrite fs_w_subst in H.
    pose proof (F_mono (fs_wstmt (clause_body cl)) (1 + (1 + fs_wclauses cls) + (1 + len args)) ltac:(lia)). lia.
Qed.

Lemma step_size : forall s st r st',
  shrink_step rec E s st = SOk (r, st') -> size_inv s st r st'.
Proof.
  intros s st r st' H. destruct s; cbn [shrink_step] in H.
  - apply cut_size; auto.
  - destruct (rec s2 st) as [[t' st1]|] eqn:H1; [|discriminate]. cbn [sbind] in H.
    destruct (rec s3 st1) as [[e' st2]|] eqn:H2; [|discriminate]. cbn [sbind] in H. inversion H; subst; clear H.
    apply Hrec in H1 as [H1 _]. apply Hrec in H2 as [H2 _]. split; [|discriminate]. cbn [ax_size fs_wstmt].
    pose proof (F_add (fs_wstmt s2) (fs_wstmt s3)). pose proof (F_node (fs_wstmt s2 + fs_wstmt s3) 1).
    replace (fs_wstmt s2 + fs_wstmt s3 + 1) with (1 + fs_wstmt s2 + fs_wstmt s3) in * by lia. lia.
  - destruct (rec s st) as [[n' st1]|] eqn:H1; [|discriminate]. cbn [sbind] in H. inversion H; subst; clear H.
    apply Hrec in H1 as [H1 _]. split; [|discriminate]. cbn [ax_size fs_wstmt].
    pose proof (F_node (fs_wstmt s) 1). replace (fs_wstmt s + 1) with (1 + fs_wstmt s) in * by lia. lia.
  - inversion H; subst. unfold size_inv. cbn [ax_size fs_wstmt is_leaf_statement]. rewrite shrink_context_len.
    pose proof (F_ge (1 + len args)). split; [lia|]. intros _. split; [lia|reflexivity].
  - inversion H; subst. unfold size_inv. cbn [ax_size fs_wstmt is_leaf_statement].
    pose proof (F_ge 1). split; [lia|]. intros _. split; [lia|reflexivity].
Qed.
End Step.

Theorem shrink_stmt_size : forall fuel E s st r st',
  shrink_stmt fuel E s st = SOk (r, st') ->
  ax_size r + Lsz st' <= Lsz st + sh_F (env_X E) (env_A E) (fs_wstmt s).
Proof.
  intros fuel E. 
  assert (G : forall s st r st', shrink_stmt fuel E s st = SOk (r, st') -> size_inv E s st r st').
  { induction fuel as [|f IH]; intros s st r st' H; simpl in H; [discriminate|].
    eapply step_size; eauto. }
  intros s st r st' H. apply G in H as [H _]. exact H.
Qed.

Lemma ax_size_defs_app : forall a b, ax_size_defs (a ++ b) = ax_size_defs a + ax_size_defs b.
Proof. induction a as [|d r IH]; intros b; simpl; [lia|]. rewrite IH. lia. Qed.
Lemma ax_size_defs_rev_append : forall a b, ax_size_defs (rev_append a b) = ax_size_defs a + ax_size_defs b.
Proof. induction a as [|d r IH]; intros b; simpl; [lia|]. rewrite IH. simpl. lia. Qed.

Lemma shrink_def_size : forall d data codata used m out used' m',
  shrink_def d data codata used m = SOk (out, used', m') ->
  ax_size_defs out <= sh_F (env_X (mksenv data codata (fst (fsdname d)))) (env_A (mksenv data codata (fst (fsdname d)))) (fs_wdef d).
Proof.
  intros d data codata used m out used' m' H. unfold shrink_def in H.
  destruct (shrink_stmt _ _ _ _) as [[body st]|] eqn:Hs; [|discriminate]. cbn [sbind] in H. inversion H; subst; clear H.
  apply shrink_stmt_size in Hs. unfold Lsz in Hs. cbn [s_lifted ax_size_defs] in Hs.
  cbn [ax_size_defs]. unfold ax_size_def. cbn [dctx dbody]. rewrite shrink_context_len. unfold fs_wdef.
  set (X := env_X _) in *. set (A := env_A _) in *.
  pose proof (sh_F_node X A (fs_wstmt (fsdbody d)) (1 + len (fsdctx d))) as Hn. unfold sh_a in Hn.
  replace (fs_wstmt (fsdbody d) + (1 + len (fsdctx d))) with (1 + len (fsdctx d) + fs_wstmt (fsdbody d)) in Hn by lia.
  pose proof (N.le_0_l (2 * sh_b X * (1 + len (fsdctx d)) * fs_wstmt (fsdbody d))). nia.
Qed.

Lemma shrink_defs_size : forall ds data codata used m acc out m',
  shrink_defs ds data codata used m acc = SOk (out, m') ->
  ax_size_defs out <= ax_size_defs acc + sh_F (N.max (decl_xtors data) (decl_xtors codata)) (N.max (decl_arity data) (decl_arity codata)) (fs_wdefs ds).
Proof.
  induction ds as [|d r IH]; intros data codata used m acc out m' H; simpl in H.
  - inversion H; subst. unfold frev. rewrite ax_size_defs_rev_append. simpl. unfold sh_F. lia.
  - destruct (shrink_def d data codata used m) as [[[o u] m1]|] eqn:Hd; [|discriminate]. cbn [sbind] in H.
    apply shrink_def_size in Hd. apply IH in H. rewrite ax_size_defs_rev_append in H.
    unfold env_X, env_A in Hd. cbn [e_data e_codata] in Hd.
    pose proof (sh_F_add (N.max (decl_xtors data) (decl_xtors codata)) (N.max (decl_arity data) (decl_arity codata)) (fs_wdef d) (fs_wdefs r)).
    cbn [fs_wdefs]. lia.
Qed.

(* prog_X / prog_A: the xtors / arities of a program: its data types plus the continuation type `_Cont { Ret(x) }`,
   its codata types *)
Theorem shrink_size_lemma : forall p q, shrink_prog p = SOk q ->
  ax_size_prog q <= fs_wprog p * ((2 + prog_X p * (2 + prog_A p)) + 2 * (1 + prog_X p) * fs_wprog p).
Proof.
  intros p q H. unfold shrink_prog in H.
  destruct (_ || _)%bool; [discriminate|].
  destruct (shrink_defs _ _ _ _ _ _) as [[defs m]|] eqn:Hd; [|discriminate]. cbn [sbind] in H. inversion H; subst; clear H.
  apply shrink_defs_size in Hd. unfold ax_size_prog; cbn [pdefs]. simpl in Hd.
  unfold sh_F, sh_a, sh_b, prog_X, prog_A, fs_wprog in *. lia.
Qed.

Lemma shrink_stmt_inv : forall fuel E s st r st', shrink_stmt fuel E s st = SOk (r, st') -> size_inv E s st r st'.
Proof.
  induction fuel as [|f IH]; intros E s st r st' H; simpl in H; [discriminate|].
  eapply step_size; eauto.
Qed.

(* a critical pair <mu a.sp | T | mu~ x.sc> at a declared type T with at least two xtors whose
   expanded side (the consumer's body for data, the producer's body for codata) is not a leaf:
   the expanded side is lifted ONCE; what every clause of the eta-expansion receives is a call of
   size 1 + |free variables| (at most 1 + 2 * weight of the expanded side); the clauses together
   have size at most  #xtors * (2 + 2 * arity + that call). *)
Theorem critical_pair_shares_lemma : forall fuel E vp sp vc sc name xs st r st',
  shrink_critical_pairs (shrink_stmt fuel E) E vp sp vc sc (CDecl name) st = SOk (r, st') ->
  xtors_of E (CDecl name) name = SOk xs -> (2 <= List.length xs)%nat ->
  let cod := is_codata (e_codata E) (CDecl name) in
  let expand := if cod then sp else sc in
  let keep := if cod then sc else sp in
  let ve := if cod then vp else vc in
  let vk := if cod then vc else vp in
  is_leaf_statement expand = false ->
  exists call st1 cls st2 next,
    lift (shrink_stmt fuel E) E expand st = SOk (call, st1) /\
    ax_size call = 1 + len (typed_free_vars expand) /\
    len (typed_free_vars expand) <= 2 * fs_wstmt expand /\
    critical_clauses (e_codata E) ve (shrink_ty (CDecl name)) call xs st1 = (cls, st2) /\
    ax_size_cls cls <= len xs * (2 + 2 * env_A E + ax_size call) /\
    shrink_stmt fuel E keep st2 = SOk (next, st') /\
    r = Create vk (Decl name) None cls next.
Proof.
  intros fuel E vp sp vc sc name xs st r st' H Hx Hn cod expand keep ve vk Hleaf.
  unfold shrink_critical_pairs in H. rewrite Hx in H. cbn [sbind] in H.
  pose proof (xtors_of_bounds _ _ _ _ Hx) as [HX HA].
  assert (Hle : Nat.leb (List.length xs) 1 = false) by (apply Nat.leb_gt; lia).
  subst cod expand keep ve vk.
  destruct (is_codata (e_codata E) (CDecl name)); cbv beta iota in H; rewrite Hle, Hleaf in H; cbn [orb] in H.
  - destruct (lift _ E sp st) as [[call st1]|] eqn:H1; [|discriminate]. cbn [sbind] in H.
    destruct (critical_clauses _ _ _ _ _ _) as [cls st2] eqn:Hc.
    destruct (shrink_stmt fuel E sc st2) as [[next st3]|] eqn:H2; [|discriminate]. cbn [sbind] in H. inversion H; subst; clear H.
    exists call, st1, cls, st2, next.
    pose proof (lift_size (shrink_stmt fuel E) E (shrink_stmt_inv fuel E) _ _ _ _ H1) as [L1 _].
    pose proof (critical_clauses_size _ _ _ _ _ _ _ _ Hc HA) as [C1 _].
    repeat split; auto. apply typed_free_vars_len.
  - destruct (lift _ E sc st) as [[call st1]|] eqn:H1; [|discriminate]. cbn [sbind] in H.
    destruct (critical_clauses _ _ _ _ _ _) as [cls st2] eqn:Hc.
    destruct (shrink_stmt fuel E sp st2) as [[next st3]|] eqn:H2; [|discriminate]. cbn [sbind] in H. inversion H; subst; clear H.
    exists call, st1, cls, st2, next.
    pose proof (lift_size (shrink_stmt fuel E) E (shrink_stmt_inv fuel E) _ _ _ _ H1) as [L1 _].
    pose proof (critical_clauses_size _ _ _ _ _ _ _ _ Hc HA) as [C1 _].
    repeat split; auto. apply typed_free_vars_len.
Qed.
