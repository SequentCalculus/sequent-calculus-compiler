(* C08, forward simulation for HEAP statements, objects and closure environments of at most three fields (ONE block):
   the code of `r_store` and `r_load` under `hrel`, Let, Create, Switch and Invoke.  Each is the chain theorem
   (Proof/RVKSimStore.v, RVKSimLoad.v, RVKSimHeapB.v, RVKSimHeapC.v; the last two taken at `CLO := hclo_ok` of
   Proof/RVHClo.v) read through Proof/RVHChain.v.  What is added: the values a statement produces are small (stored
   values come from the environment, three of them make a small object; the fields of a small object and the captured
   environment of a small closure are small); the `hclo_ok` a new closure gets in the chain development yields the
   one-block version because the clause bodies are in the fragment (`hclo_block`); the clause body an Invoke reaches is in
   the fragment by `hclo_ok`, so its code contains an instruction and the landing point exists (`cs_has_nz`). *)
From Coq Require Import List ZArith NArith String Bool Lia FMapPositive.
From SCC Require Import Base.Sexp Lang.AxSyn Sem.AxSem Sem.AxHeap Model.Backend Model.RV Sem.RVSem Sem.RVWf
     Model.Linearize Model.LinCheck Proof.LinBasics Proof.RVSel Proof.RVSimAddr Proof.RVSimRel Proof.RVSimClo
     Proof.RVHeapAbs Proof.RVHDefs Proof.RVHMem Proof.RVHBridge Proof.RVHSimRel Proof.RVHLayout Proof.RVHFrag Proof.X86HAnn Proof.RVHClo
     Proof.RVHChain.
From SCC Require Model.Heap Proof.HeapRep Proof.RVKSimStore Proof.RVKSimLoad Proof.RVKSimHeapB Proof.RVKSimHeapC.
Import ListNotations.
Open Scope Z_scope.
Open Scope list_scope.

Theorem hsim_store_any im types CLO rest args he0 fsE hs s lc c1 lc1 pc hl fl cl :
  hrel types CLO (rest ++ args) (he0 ++ fsE) hs s ->
  List.length he0 = List.length rest -> (List.length args <= 3)%nat ->
  InvA HEAP_BASE hs (roots (he0 ++ fsE)) hl fl cl -> P03 hs ->
  (forall en, In en fsE -> chi_of (h_val en) = Ext -> h_ptr en = 0) ->
  r_store args rest lc = Ok (c1, lc1) -> placed im pc c1 ->
  Heap.frontier hs + 64 <= LIMIT ->
  Heap.frontier (snd (Heap.alloc_object (map store_ptr fsE) hs)) + 64 <= LIMIT ->
  exists s', star im pc s (padd pc (List.length c1)) s' /\
    hrel types CLO rest he0 (snd (Heap.alloc_object (map store_ptr fsE) hs)) s' /\
    rget s' (pos_reg Fst (List.length rest)) = Some (fst (Heap.alloc_object (map store_ptr fsE) hs)) /\
    xflds types CLO (hword s') (map h_val fsE) (fst (Heap.alloc_object (map store_ptr fsE) hs)).
Proof.
  intros R L0 LE3 IA K03 EX XS PL HF1 HF2.
  pose proof (hrel_length R) as LEN. rewrite !app_length in LEN.
  apply hrel_small_iff in R as [RK SM].
  apply small_env_app in SM as [SM0 SME].
  destruct (RVKSimStore.hsim_store_any im types CLO rest args he0 fsE hs s lc c1 lc1 pc hl fl cl RK L0 IA K03 EX XS PL HF1 HF2)
    as (s' & X & R' & LT & XF).
  exists s'. split; [exact X|]. split; [apply hrel_small_iff; auto|]. split; [exact LT|].
  apply xflds_small_iff. split; [exact XF|]. split; [rewrite map_length; lia|exact (small_env_vals _ SME)].
Qed.

Theorem hsim_load im types CLO cE cx heE x vq q fs (e1 : env) hs s lc cl lc1 pc lk hl fl cl0 :
  hrel types CLO cE heE hs s ->
  rget s (pos_reg Fst (List.length cE)) = Some q ->
  xflds types CLO (hword s) fs q -> fs <> [] ->
  map snd e1 = fs -> env_ids e1 = ids cx ->
  Forall2 (fun b f => chi_of f = bchi b /\ ty_of f = bty b) cx fs ->
  NoDup (ids (cE ++ cx)) ->
  InvA HEAP_BASE hs (roots (heE ++ [(x, vq, q)])) hl fl cl0 -> P03 hs ->
  HeapRep.rep_flds lk (Heap.m hs) fs q ->
  Heap.frontier hs <= LIMIT ->
  r_load cx cE lc = Ok (cl, lc1) -> placed im pc cl ->
  exists s', star im pc s (padd pc (List.length cl)) s' /\
    hrel types CLO (cE ++ cx) (heE ++ attach e1 (load_ptrs hs (List.length fs) q))
         (Heap.load_object (Heap.nlinks (List.length fs)) q hs) s'.
Proof.
  intros R LQ XF NE E1S E1F KIN ND IA K03 RF HFr XL PL.
  apply hrel_small_iff in R as [RK SM].
  apply xflds_small_iff in XF as (XFK & _ & SMF).
  destruct (RVKSimLoad.hsim_load im types CLO cE cx heE x vq q fs e1 hs s lc cl lc1 pc lk hl fl cl0
              RK LQ XFK NE E1S E1F KIN ND IA K03 RF HFr XL PL) as (s' & X & R').
  exists s'. split; [exact X|]. apply hrel_small_iff. split; [exact R'|].
  apply small_env_app. split; [exact SM|]. apply small_env_attach. now rewrite E1S.
Qed.

Theorem hsim_let im p stop c he hs s v t tag args next lc code lc' pc he0 fs tn hl fl cl :
  hrel (ptypes p) (hclo_ok im p stop) c he hs s ->
  lin_check (sigs_of p) c (Let v t tag args next) = true -> (List.length args <= 3)%nat ->
  rcs (ptypes p) (Let v t tag args next) c lc = Ok (code, lc') -> placed im pc code ->
  ty_name t = Some tn -> AxSem.split_last (List.length args) he = Some (he0, fs) ->
  InvA HEAP_BASE hs (roots he) hl fl cl -> P03 hs ->
  (forall en, In en he -> chi_of (h_val en) = Ext -> h_ptr en = 0) ->
  let res := Heap.alloc_object (map store_ptr fs) hs in
  Heap.frontier hs + 64 <= LIMIT -> Heap.frontier (snd res) + 64 <= LIMIT ->
  let c0 := firstn (List.length c - List.length args) c in
  exists c12 c3 lc1 s',
    code = c12 ++ c3 /\ rcs (ptypes p) next (c0 ++ [mkb v Prd t]) lc1 = Ok (c3, lc') /\
    lin_check (sigs_of p) (c0 ++ [mkb v Prd t]) next = true /\
    star im pc s (padd pc (List.length c12)) s' /\
    hrel (ptypes p) (hclo_ok im p stop) (c0 ++ [mkb v Prd t]) (he0 ++ [(v, VObj tn tag (map h_val fs), fst res)]) (snd res) s'.
Proof.
  intros R LC LE3 CS PL TN SL IA K03 EX res HF1 HF2 c0. apply hrel_small_iff in R as [RK SM].
  destruct (RVKSimHeapB.hsim_let_clo im p (hclo_ok im p stop) c he hs s v t tag args next lc code lc' pc he0 fs tn hl fl cl
              RK LC CS PL TN SL IA K03 EX HF1 HF2) as (c12 & c3 & lc1 & s' & E & NX & LCn & X & R').
  exists c12, c3, lc1, s'. split; [exact E|]. split; [exact NX|]. split; [exact LCn|]. split; [exact X|].
  apply hrel_small_iff. split; [exact R'|].
  apply asplit_last_app in SL as [-> LF]. apply small_env_app in SM as [SM0 SMf].
  apply small_env_app. split; [exact SM0|]. constructor; [|constructor].
  constructor; [rewrite map_length; lia|exact (small_env_vals _ SMf)].
Qed.

Theorem hsim_create im p stop :
  rimg_ok im -> fwd_ok im ->
  (forall pc a, PM.find pc (addr_of im) = Some a -> a mod 2 = 0) ->
  (forall pc a, PM.find pc (addr_of im) = Some a -> a < 4611686018427387904 - 32) ->
  (exists l, PM.find stop (code im) = Some (LAB l)) -> PM.find (Pos.succ stop) (code im) = None ->
  forall c he hs s v t env cls next lc code lc' pc he0 cap tn ce hl fl cl,
  hrel (ptypes p) (hclo_ok im p stop) c he hs s ->
  lin_check (sigs_of p) c (Create v t (Some env) cls next) = true ->
  skipn (List.length c - List.length env) c = env -> ann_clauses_cr env cls = true ->
  (List.length env <= 3)%nat -> clauses_h cls = true ->
  rcs (ptypes p) (Create v t (Some env) cls next) c lc = Ok (code, lc') -> placed im pc code ->
  ty_name t = Some tn -> AxSem.split_last (List.length env) he = Some (he0, cap) ->
  bind (vars env) (map h_val cap) = Some ce ->
  InvA HEAP_BASE hs (roots he) hl fl cl -> P03 hs ->
  (forall en, In en he -> chi_of (h_val en) = Ext -> h_ptr en = 0) ->
  let res := Heap.alloc_object (map store_ptr cap) hs in
  Heap.frontier hs + 64 <= LIMIT -> Heap.frontier (snd res) + 64 <= LIMIT ->
  let c0 := firstn (List.length c - List.length env) c in
  exists c12 c3 lc2 lc3 rest' s',
    code = c12 ++ c3 ++ rest' /\ rcs (ptypes p) next (c0 ++ [mkb v Cns t]) lc2 = Ok (c3, lc3) /\
    lin_check (sigs_of p) (c0 ++ [mkb v Cns t]) next = true /\
    star im pc s (padd pc (List.length c12)) s' /\
    hrel (ptypes p) (hclo_ok im p stop) (c0 ++ [mkb v Cns t]) (he0 ++ [(v, VClo tn cls ce, fst res)]) (snd res) s'.
Proof.
  intros IMG FWD EVEN SMALL STOPC ENDC c he hs s v t env cls next lc code lc' pc he0 cap tn ce hl fl cl
         R LC ANN ANC LE3 CH CS PL TN SL BD IA K03 EX res HF1 HF2 c0.
  apply hrel_small_iff in R as [RK SM].
  destruct (RVKSimHeapB.hsim_create_clo im p stop IMG FWD EVEN SMALL STOPC ENDC (hclo_ok im p stop)
              c he hs s v t env cls next lc code lc' pc he0 cap tn ce hl fl cl
              (fun a => hclo_block im p stop a tn cls env CH) RK LC ANN ANC (clauses_h_k cls CH) CS PL TN SL BD IA K03 EX HF1 HF2)
    as (c12 & c3 & lc2 & lc3 & rest' & s' & E & NX & LCn & X & R').
  exists c12, c3, lc2, lc3, rest', s'. split; [exact E|]. split; [exact NX|]. split; [exact LCn|]. split; [exact X|].
  apply hrel_small_iff. split; [exact R'|].
  apply asplit_last_app in SL as [-> LF]. apply small_env_app in SM as [SM0 SMc].
  apply small_env_app. split; [exact SM0|]. constructor; [|constructor].
  destruct (RVKSimHeapC.bind_snd _ _ _ BD) as [ES EF]. constructor.
  - rewrite <- (map_length fst), EF. unfold vars. rewrite map_length. exact LE3.
  - rewrite ES. exact (small_env_vals _ SMc).
Qed.

Lemma attach_nil_r (e : env) : e = [] -> forall ps, attach e ps = [].
Proof. intros ->. reflexivity. Qed.
Lemma ctx_of_env_length (ce : list (ident * value)) : List.length (ctx_of_env ce) = List.length ce.
Proof. unfold ctx_of_env. apply map_length. Qed.

(* the last entry of a small environment *)
Lemma small_env_last he0 x v q : small_env (he0 ++ [(x, v, q)]) -> small_env he0 /\ small v.
Proof. intros H. apply small_env_app in H as [H0 H1]. split; [exact H0|]. now inversion H1. Qed.

Theorem hsim_switch im p stop :
  rimg_ok im -> fwd_ok im ->
  (forall pc a, PM.find pc (addr_of im) = Some a -> a mod 2 = 0) ->
  (forall pc a, PM.find pc (addr_of im) = Some a -> a < 4611686018427387904 - 32) ->
  (exists l, PM.find stop (code im) = Some (LAB l)) -> PM.find (Pos.succ stop) (code im) = None ->
  forall c he hs s v t cls lc code lc' pc he0 x tn tag fs q cl e1 lk hl fl cl0,
  hrel (ptypes p) (hclo_ok im p stop) c he hs s -> lin_check (sigs_of p) c (Switch v t cls) = true -> clauses_h cls = true ->
  rcs (ptypes p) (Switch v t cls) c lc = Ok (code, lc') -> placed im pc code ->
  AxSem.split_last 1 he = Some (he0, [(x, VObj tn tag fs, q)]) ->
  find_clause cls tag = Some cl -> bind (vars (cl_ctx cl)) fs = Some e1 ->
  InvA HEAP_BASE hs (roots he) hl fl cl0 -> P03 hs -> Heap.frontier hs <= LIMIT ->
  (fs <> [] -> HeapRep.rep_flds lk (Heap.m hs) fs q) ->
  let c0 := removelast c in
  exists pcb lcb cb lcb' s',
    (forall o, rfin im stop pcb s' o -> rfin im stop pc s o) /\
    rcs (ptypes p) (cl_body cl) (c0 ++ cl_ctx cl) lcb = Ok (cb, lcb') /\ placed im pcb cb /\
    lin_check (sigs_of p) (c0 ++ cl_ctx cl) (cl_body cl) = true /\
    hrel (ptypes p) (hclo_ok im p stop) (c0 ++ cl_ctx cl) (he0 ++ attach e1 (load_ptrs hs (List.length (cl_ctx cl)) q))
         (hrun (load_ops (List.length (cl_ctx cl)) q) hs) s'.
Proof.
  intros IMG FWD EVEN SMALL STOPC ENDC c he hs s v t cls lc code lc' pc he0 x tn tag fs q cl e1 lk hl fl cl0
         R LC _ CS PL SL FC BD IA K03 HFr RF c0.
  apply hrel_small_iff in R as [RK SM].
  destruct (RVKSimHeapC.hsim_switch_clo im p stop IMG FWD EVEN SMALL STOPC ENDC (hclo_ok im p stop)
              c he hs s v t cls lc code lc' pc he0 x tn tag fs q cl e1 lk hl fl cl0 RK LC CS PL SL FC BD IA K03 HFr RF)
    as (pcb & lcb & cb & lcb' & s' & X' & CSb & PLb & LCb & _ & R').
  exists pcb, lcb, cb, lcb', s'. split; [exact X'|]. split; [exact CSb|]. split; [exact PLb|]. split; [exact LCb|].
  apply hrel_small_iff. split; [exact R'|].
  apply SimFrag.split_last1_inv in SL. subst he. apply small_env_last in SM as [SM0 SMv]. inversion SMv; subst.
  apply small_env_app. split; [exact SM0|]. apply small_env_attach.
  now rewrite (proj1 (RVKSimHeapC.bind_snd _ _ _ BD)).
Qed.

Theorem hsim_invoke im p stop :
  (exists l, PM.find stop (code im) = Some (LAB l)) -> PM.find (Pos.succ stop) (code im) = None ->
  forall c he hs s v tag t args cd lc lc' pc he0 x tn cls ce q cl e1 lk hl fl cl0,
  hrel (ptypes p) (hclo_ok im p stop) c he hs s ->
  AxSem.split_last 1 he = Some (he0, [(x, VClo tn cls ce, q)]) ->
  find_clause cls tag = Some cl -> bind (vars (cl_ctx cl)) (map snd (erase_env he0)) = Some e1 ->
  lin_check (sigs_of p) c (Invoke v tag t args) = true ->
  rcs (ptypes p) (Invoke v tag t args) c lc = Ok (cd, lc') -> at_code im pc cd ->
  InvA HEAP_BASE hs (roots he) hl fl cl0 -> P03 hs -> Heap.frontier hs <= LIMIT ->
  (ce <> [] -> HeapRep.rep_flds lk (Heap.m hs) (map snd ce) q) ->
  exists pcb lcb cb lcb' s',
    (forall o, rfin im stop pcb s' o -> rfin im stop pc s o) /\
    rcs (ptypes p) (cl_body cl) (cl_ctx cl ++ ctx_of_env ce) lcb = Ok (cb, lcb') /\ placed im pcb cb /\
    lin_check (sigs_of p) (cl_ctx cl ++ ctx_of_env ce) (cl_body cl) = true /\
    ann_check (cl_ctx cl ++ ctx_of_env ce) (cl_body cl) = true /\ stmt_h (cl_body cl) = true /\
    hrel (ptypes p) (hclo_ok im p stop) (cl_ctx cl ++ ctx_of_env ce) (attach e1 (ptrs he0) ++ attach ce (load_ptrs hs (List.length ce) q))
         (hrun (load_ops (List.length ce) q) hs) s'.
Proof.
  intros STOPC ENDC c he hs s v tag t args cd lc lc' pc he0 x tn cls ce q cl e1 lk hl fl cl0 R SL FC BD LC CS CA IA K03 HFr RF.
  (* the body of the invoked clause is in the fragment: `hclo_ok` of the closure *)
  assert (FRh : stmt_h (cl_body cl) = true).
  { pose proof SL as E. apply SimFrag.split_last1_inv in E. subst he.
    destruct (hr_vals R (List.length he0) x (VClo tn cls ce) q (nth_error_mid _ _ _)) as (b & _ & V).
    inversion V as [|b1 v1 q1 a t1 t2 _ _ _ _ _ _ _ X]; subst. inversion X as [| |tn1 cls1 ce1 q1 a1 (_ & _ & _ & ENTRY) _]; subst.
    unfold find_clause in FC. apply find_some in FC as [Hin _]. apply In_nth_error in Hin as (k & Hk).
    destruct (ENTRY k cl Hk) as (i & pcc & lcl & cl1 & lcb & cb & lcb' & H). apply H. }
  apply hrel_small_iff in R as [RK SM].
  destruct (RVKSimHeapC.hsim_invoke_clo im p stop STOPC ENDC (hclo_ok im p stop)
              c he hs s v tag t args cd lc lc' pc he0 x tn cls ce q cl e1 lk hl fl cl0
              (fun a => hclo_chain im p stop a tn cls _) RK SL FC BD LC CS CA IA K03 HFr RF)
    as (pcb & lcb & cb & lcb' & s' & X' & CSb & PLb & LCb & ANb & _ & R').
  exists pcb, lcb, cb, lcb', s'. split; [exact (X' (cs_has_nz (ptypes p) _ _ _ _ _ FRh CSb))|].
  split; [exact CSb|]. split; [exact PLb|]. split; [exact LCb|]. split; [exact ANb|]. split; [exact FRh|].
  apply hrel_small_iff. split; [exact R'|].
  apply SimFrag.split_last1_inv in SL. subst he. apply small_env_last in SM as [SM0 SMv]. inversion SMv; subst.
  apply small_env_app. split; apply small_env_attach; [|assumption].
  rewrite (proj1 (RVKSimHeapC.bind_snd _ _ _ BD)). unfold erase_env. rewrite map_map. exact (small_env_vals _ SM0).
Qed.
