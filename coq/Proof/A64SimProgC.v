(* C07, forward simulation of the AArch64 code generator: programs of the CLOSURE fragment - integers and closures without
   captured variables: Substitute / Call / Literal / Op / PrintI64 / IfC / Exit as in the integer fragment,
   plus `create v : T = (){…}` and `invoke v D`.  This covers the programs the pipeline produces for
   first-order tail-recursive integer functions (the return continuation passed to every call is such a
   closure).  `sim_exec_cf` is the induction on the fuel again: `sim_step` of Proof/A64SimProg.v for the shared
   statements, the two new statements here, the relation instantiated with `clo_ok` (Proof/A64SimClo.v).
   Mirrors Proof/X86SimProgC.v. *)
From Coq Require Import List ZArith NArith String Bool Lia FMapPositive.
From SCC Require Import Lang.AxSyn Sem.AxSem Model.Backend Sem.A64Sem Model.LinCheck Proof.LinBasics Proof.A64Exec
     Proof.A64SimRel Proof.A64SimAddr Proof.A64SimClo Proof.A64SimProg.
Import ListNotations.
Open Scope Z_scope.
Open Scope list_scope.

Section MainCf.
Variable im : image.
Variable p : prog.
Variable sp : Z.
Variable st0 : PM.t Z.
Hypothesis IMG : img_ok im.
Hypothesis SMALL : forall pc a, PM.find pc (addr_of im) = Some a -> a < 4611686018427387904.
Hypothesis PLT : forall d, In d (ptypes p) -> hash_name (label_of_type_name (show_ident (tname d))) = false.
Notation CLO := (clo_ok im p).
Local Notation rel := (rel CLO).
Local Notation outer_ok := (outer_ok st0 sp).
Hypothesis DEFS : defs_placed im p.
Hypothesis CLEAN : cleanup_placed im sp st0.
Hypothesis LIN : forall d, In d (pdefs p) -> lin_check (sigs_of p) (dctx d) (dbody d) = true.
Hypothesis INT : forall d, In d (pdefs p) -> stmt_cf (dbody d) = true.
Hypothesis LITS : forall d, In d (pdefs p) -> stmt_lits (dbody d) = true.

(* the closure fragment is closed under `runs_next` *)
Lemma stmt_cf_next s s' : stmt_cf s = true -> runs_next p s s' -> stmt_cf s' = true.
Proof.
  destruct s; cbn [stmt_cf runs_next]; intros SI N; try discriminate; try contradiction; subst; auto.
  - apply andb_true_iff in SI. tauto.
  - destruct N as (d & IN & ->). exact (INT d IN).
  - apply andb_true_iff in SI. destruct N; subst; tauto.
Qed.

Lemma sim_cf : forall fuel s, stmt_cf s = true -> simulates im p sp CLO st0 fuel s.
Proof.
  induction fuel as [|fuel IH]; intros s SI.
  { intros c e ot st pc code lc lc' _ _ _ _ _ _ _ _ G. exfalso. apply G. reflexivity. }
  destruct (plain_stmt s) eqn:PS.
  { apply (sim_step im p sp CLO st0 DEFS CLEAN LIN LITS); [exact PS|]. intros s' N. apply IH. exact (stmt_cf_next s s' SI N). }
  intros c e ot st pc code lc lc' SL LC CS CA LA R OK OUT G.
  pose proof (rel_frame R) as F. pose proof (proj2 F) as SPOK.
  destruct s as [re next|label args|v t tag args next|v t cls|v t env cls next|v tag t args|n v next|a op b v next|nl v next|so a b thenc elsec|v];
    try discriminate PS; try discriminate SI; cbn [exec_linear] in G |- *.
  - (* Create *)
    destruct (stmt_cf_create v t env cls next SI) as (-> & NE & CFc & CFn).
    destruct (stmt_lits_create v t (Some []) cls next SL) as (SLc & SLn).
    rewrite lin_check_create in LC. apply andb_true_iff in LC as [_ LC].
    cbn [List.length] in LC. unfold split_lastn in LC. cbn [Nat.leb] in LC. rewrite Nat.sub_0_r, firstn_all, skipn_all in LC.
    apply andb_true_iff in LC as [LC LCn]. apply andb_true_iff in LC as [LC LCc]. apply andb_true_iff in LC as [_ CO].
    assert (TN : exists tn, t = Decl tn).
    { unfold cls_ok, type_xtors in CO. destruct t as [|tn]; [discriminate|eauto]. }
    destruct TN as (tn & ->).
    cbn [ty_name List.length] in G |- *. unfold AxSem.split_last in G |- *. cbn [Nat.leb] in G |- *.
    rewrite Nat.sub_0_r, firstn_all, skipn_all in G |- *. cbn [env_ids map ids ids_eqb vars bind] in G |- *.
    assert (NHL : hash_name (type_label (Decl tn) (lc + 1)%N) = false).
    { unfold type_label. cbn [show_ty]. apply hash_name_sub.
      unfold cls_ok, type_xtors in CO. cbn [sigs_of sg_types] in CO.
      destruct (find (fun d => ident_eqb (tname d) tn) (ptypes p)) as [d|] eqn:FD; [|discriminate].
      apply find_some in FD as [IN EQ]. apply ident_eqb_eq in EQ. subst tn. exact (PLT d IN). }
    assert (STAT : forall cl, In cl cls -> clause_static p cl).
    { intros cl Hcl. unfold lin_clauses_cr in LCc. rewrite forallb_forall in LCc. specialize (LCc cl Hcl). rewrite app_nil_r in LCc.
      unfold clauses_cf in CFc. rewrite forallb_forall in CFc. specialize (CFc cl Hcl). apply andb_true_iff in CFc as [A B].
      unfold clauses_lits in SLc. rewrite forallb_forall in SLc. specialize (SLc cl Hcl). repeat split; auto. }
    destruct (sim_create im p IMG SMALL c e st sp v tn cls next lc code lc' pc R (lin_nodup _ _ _ LCn) CS CA LA NHL NE CO STAT)
      as (c12 & c3 & lc3 & rest & s' & -> & NX & E & R' & FE).
    apply code_at_app in CA as [CA1 CA2]. apply code_at_app in CA2 as [CA2 _].
    apply labels_at_nh_app in LA as [_ LA2]. apply labels_at_nh_app in LA2 as [LA2 _].
    eapply exec_to_finishes; [apply (run_straight_exec_to im _ pc st s' CA1 E)|].
    refine (IH next CFn _ _ ot s' _ c3 _ lc3 SLn LCn NX CA2 LA2 R' _ _ G).
    + eapply frame_eq_outer; eauto.
    + destruct FE as (_ & O & _). congruence.
  - (* Invoke *)
    destruct (invoke_progress im p c e st sp v tag t args R LC) as (e0 & x & tn & cls & cl & e1 & SPL & IDX & FC & BD).
    rewrite SPL, IDX, FC, BD in G |- *.
    destruct (sim_invoke im p c e st sp v tag t args code lc lc' pc e0 x tn cls [] cl e1 R SPL IDX FC BD LC CS CA)
      as (i & pcb & lcb & cb & lcb' & s' & X & TR & CSb & CAb & LAb & (LCb & CFb & CXb & SLb) & R' & FE).
    eapply exec_to_finishes; [exact X|]. apply TR.
    refine (IH (cl_body cl) CFb (cl_ctx cl) (e1 ++ []) ot s' pcb cb lcb lcb' SLb LCb CSb CAb LAb R' _ _ G).
    + eapply frame_eq_outer; eauto.
    + destruct FE as (_ & O & _). congruence.
Qed.

Lemma sim_exec_cf : forall fuel s c e ot st pc code lc lc',
  stmt_cf s = true -> stmt_lits s = true -> lin_check (sigs_of p) c s = true ->
  acs (ptypes p) s c lc = Ok (code, lc') -> code_at im pc code -> labels_at_nh im pc code ->
  rel c e st sp -> outer_ok st -> out st = ot ->
  not_oof (exec_linear fuel p e s ot) -> finishes im pc st (exec_linear fuel p e s ot).
Proof. intros fuel s c e ot st pc code lc lc' SI. exact (sim_cf fuel s SI c e ot st pc code lc lc'). Qed.
End MainCf.
