(* C07, heap statements on AArch64: the labels inside the code of `a_store` and `a_load` (Model/A64.v) are branch
   labels `lab<n>` (the label discipline of Proof/LabelsA64.v), never '#'-labels, so `labels_at_nh` (what `asm_wf` gives
   for the image: only labels that do not start with '#' are known to resolve to their own position) yields `labels_at`
   for that code, which is what the C09 refinement theorems for store and load (Proof/A64MemStore*.v, A64MemLoad*.v)
   ask for.  x86-64: the second half of Proof/X86HConv.v (its pnth/padd conversions have no counterpart here: both
   AArch64 developments use `padd`, `code_at`, `labels_at`, `exec_to` of Proof/A64Exec.v). *)
From Coq Require Import List ZArith NArith String Bool Lia FMapPositive.
From SCC Require Proof.LabelGen Proof.LabelsA64.
From SCC Require Import Base.Sexp Lang.AxSyn Sem.AxSem Model.ParMoves Model.Backend Model.A64 Sem.A64Sem
     Generated.Constants Proof.A64State Proof.A64Sel Proof.A64Exec Proof.A64Wf Proof.A64SimRel Proof.A64SimStmt.
Import ListNotations.
Open Scope Z_scope.
Open Scope list_scope.

Lemma nh_nil : nh_labels []. Proof. constructor. Qed.

(* every label the code generator makes up is `lab<n>` (Proof/LabelsA64.v) *)
Lemma nh_labs_ok lc cs lc' : LabelsA64.labs_ok lc cs lc' -> nh_labels cs.
Proof.
  intros (_ & ks & D & _). unfold LabelGen.defs in D.
  assert (H : forall l, In l (flat_map A64Wf.all_defs cs) -> hash_name l = false).
  { intros l Hl. rewrite D in Hl. apply in_map_iff in Hl as (k & <- & _). apply nh_lab. }
  clear D. induction cs as [|c cs IH]; constructor.
  - destruct c; try exact I. apply H. now left.
  - apply IH. intros l Hl. apply H. cbn [flat_map]. apply in_app_iff. now right.
Qed.
Lemma nh_a_store to_store remaining lc cs lc' : a_store to_store remaining lc = Ok (cs, lc') -> nh_labels cs.
Proof. intros H. exact (nh_labs_ok _ _ _ (LabelsA64.store_ok _ _ _ _ _ H)). Qed.
Lemma nh_a_load to_load existing lc cs lc' : a_load to_load existing lc = Ok (cs, lc') -> nh_labels cs.
Proof. intros H. exact (nh_labs_ok _ _ _ (LabelsA64.load_ok _ _ _ _ _ H)). Qed.

Lemma labels_at_a_store im pc to_store remaining lc cs lc' :
  a_store to_store remaining lc = Ok (cs, lc') -> labels_at_nh im pc cs -> labels_at im pc cs.
Proof. intros H. apply labels_at_of_nh. exact (nh_a_store _ _ _ _ _ H). Qed.
Lemma labels_at_a_load im pc to_load existing lc cs lc' :
  a_load to_load existing lc = Ok (cs, lc') -> labels_at_nh im pc cs -> labels_at im pc cs.
Proof. intros H. apply labels_at_of_nh. exact (nh_a_load _ _ _ _ _ H). Qed.
(* the reference-count code of a substitution, for completeness (`nh_erase`, `nh_share` are in Proof/A64SimStmt.v) *)
Lemma labels_at_a_erase_block im pc t lc : labels_at_nh im pc (fst (a_erase_block t lc)) -> labels_at im pc (fst (a_erase_block t lc)).
Proof. apply labels_at_of_nh, nh_erase. Qed.
Lemma labels_at_a_share_block_n im pc t n lc :
  labels_at_nh im pc (fst (a_share_block_n t n lc)) -> labels_at im pc (fst (a_share_block_n t n lc)).
Proof. apply labels_at_of_nh, nh_share. Qed.
