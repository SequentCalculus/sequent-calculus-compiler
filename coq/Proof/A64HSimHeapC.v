(* C07, forward simulation for HEAP statements on AArch64, part 6c: Switch (dispatch through the jump table
   `ADR TEMP, table; ADD TEMP, TEMP, tag; BR TEMP`, or fall-through for at most one clause, then the load of the
   fields) and Invoke (indirect branch `BR r` / `ADD r, r, #4k; BR r` through the data word of the closure, then
   the load of the captured environment).  x86-64: Proof/X86HSimHeapC.v.

   DIFFERENCES FROM x86-64.
     - Switch: unchanged statement (`exec_to` up to the clause body); `a + 4k` is the address of table entry k, a
       real instruction, from which an `exec_to` leads to the clause (`dispatch_layout_exec`).
     - Invoke: the indirect branch lands on the first instruction of non-zero size at the closure's address, which
       lies behind the labels in front of the clause code (possibly inside it), so the conclusion is in
       `finishes`-form: every run from the start of the clause body (state s') is a run from the Invoke (state s).
       No encodability hypothesis (`instr_wf` on x86-64): ADDI has no fault in Sem/A64Sem.v.
     - `hrel_temp`: the dispatch changes X2 (TEMP) and, for a spilled tag, X3 (TEMP2). *)
From Coq Require Import List ZArith NArith String Bool Lia FMapPositive Permutation.
From SCC Require Import Base.Sexp Lang.AxSyn Sem.AxSem Sem.AxHeap Model.ParMoves Model.Backend Model.A64 Sem.A64Sem
     Model.Linearize Model.LinCheck Generated.Constants Proof.LinBasics Proof.LinTyping
     Proof.A64State Proof.A64ImmHw Proof.A64Imm Proof.A64Sel Proof.A64PM Proof.A64Exec
     Proof.A64MemSubst Proof.SubstGraph Proof.SubstBackends Proof.A64Subst Proof.A64Wf Proof.A64Print
     Proof.A64SimRel Proof.A64SimStmt Proof.A64SimAddr Proof.A64SimClo Proof.HRep Proof.A64Mem Proof.A64MemOps
     Proof.A64HSimRel Proof.A64HSimStmt Proof.A64HConv Proof.A64HSimStore Proof.A64HSimLoad Proof.A64HLayout
     Proof.A64HSimHeapA Proof.X86HAnn Proof.A64HSimHeapB.
From SCC Require Model.Heap Proof.HeapMore Proof.HeapTrace Proof.HeapRep
     Proof.X86Mem Proof.X86MemFrame Proof.X86HeapDefs Proof.X86HeapCongr Proof.X86HBridge Proof.X86HFrame
     Proof.X86HSimHeapA Proof.X86HSimHeapB Proof.X86HSimHeapC.
Import ListNotations.
Open Scope Z_scope.
Open Scope list_scope.

Notation bind_snd := X86HSimHeapC.bind_snd.
Notation ptrs_attach := X86HSimHeapC.ptrs_attach.

(* the lemmas of Proof/X86HSimHeapC.v about `same_kinds` / `ctx_of_env`, read on the constants of Proof/HRep.v *)
Lemma kinds_join (cx sg : ctx) (fs : list value) : same_kt cx sg -> HRep.same_kinds fs sg ->
  Forall2 (fun b f => chi_of f = bchi b /\ ty_of f = bty b) cx fs.
Proof. exact (X86HSimHeapC.kinds_join cx sg fs). Qed.
Lemma ctx_of_env_kinds (ce : list (ident * value)) :
  Forall2 (fun b f => chi_of f = bchi b /\ ty_of f = bty b) (HRep.ctx_of_env ce) (map snd ce).
Proof. induction ce as [|[x v] ce IH]; cbn; constructor; auto. Qed.
Lemma ctx_of_env_ids (ce : list (ident * value)) : env_ids ce = ids (HRep.ctx_of_env ce).
Proof. unfold env_ids, ids, HRep.ctx_of_env. rewrite map_map. reflexivity. Qed.
Lemma ctx_of_env_length (ce : list (ident * value)) : List.length (HRep.ctx_of_env ce) = List.length ce.
Proof. unfold HRep.ctx_of_env. apply map_length. Qed.

Section HC.
Variable im : image.
Variable p : prog.
Hypothesis IMG : img_ok im.
Hypothesis SMALL : forall pc a, PM.find pc (addr_of im) = Some a -> a < 4611686018427387904.
Local Notation CLO := (hclo_ok im p).
Local Notation hrel := (hrel (ptypes p) CLO).
Local Notation hvrep := (hvrep (ptypes p) CLO).
Local Notation xflds := (HRep.xflds (ptypes p) CLO jump_length in64).
Local Notation ctx_of_env := HRep.ctx_of_env.

(* a state that differs from s in X2, X3 (TEMP, TEMP2) and the flags only keeps the relation *)
Lemma hrel_temp c he hs s s' sp :
  hrel c he hs s sp -> frame_ok s' sp -> heap s' = heap s ->
  (forall l, loc_ok l -> l <> AR TEMP -> l <> AR TEMP2 -> lget s' sp l = lget s sp l) ->
  hrel c he hs s' sp.
Proof.
  intros R F' HE LG. apply (hrel_keep (ptypes p) CLO c he hs s s' sp R F' HE).
  - apply (LG (AR HEAP)); [exact I|discriminate|discriminate].
  - apply (LG (AR FREE)); [exact I|discriminate|discriminate].
  - intros i b n t _ _ T. destruct (atpos_ok _ _ _ T) as (((A & B & C) & _) & _). apply LG; assumption.
Qed.

Theorem hsim_switch c he hs s sp v t cls lc code lc' pc he0 x tn tag fs q cl e1 lk hl fl cl0 :
  hrel c he hs s sp -> lin_check (sigs_of p) c (Switch v t cls) = true ->
  acs (ptypes p) (Switch v t cls) c lc = Ok (code, lc') -> code_at im pc code -> labels_at_nh im pc code ->
  (forall lcx, hash_name (type_label t lcx) = false) ->
  AxSem.split_last 1 he = Some (he0, [(x, VObj tn tag fs, q)]) ->
  find_clause cls tag = Some cl -> bind (vars (cl_ctx cl)) fs = Some e1 ->
  InvA X86Sem.HEAP_BASE hs (roots he) hl fl cl0 -> P03 hs -> Heap.frontier hs <= LIMIT ->
  (fs <> [] -> HeapRep.rep_flds lk (Heap.m hs) fs q) ->
  let c0 := removelast c in
  exists pcb lcb cb lcb' s',
    exec_to im pc s pcb s' /\
    acs (ptypes p) (cl_body cl) (c0 ++ cl_ctx cl) lcb = Ok (cb, lcb') /\ code_at im pcb cb /\ labels_at_nh im pcb cb /\
    lin_check (sigs_of p) (c0 ++ cl_ctx cl) (cl_body cl) = true /\
    hrel (c0 ++ cl_ctx cl) (he0 ++ attach e1 (load_ptrs hs (List.length (cl_ctx cl)) q))
         (hrun (load_ops (List.length (cl_ctx cl)) q) hs) s' sp /\
    hframe_eq s s' sp.
Proof.
  intros R LC CS CA LA NHL SL FC BD IA K03 HFr RF c0'.
  apply split_last1_inv in SL. subst he.
  rewrite lin_check_switch in LC. apply andb_true_iff in LC as [_ LC].
  destruct (split_lastn 1 c) as [[c0 [|b [|b' r]]]|] eqn:SLc; try discriminate.
  apply split_lastn_Some in SLc as [-> _]. unfold c0'. rewrite removelast_last. clear c0'.
  apply andb_true_iff in LC as [LC LCc]. apply andb_true_iff in LC as [LC CO]. apply andb_true_iff in LC as [LC TY].
  apply andb_true_iff in LC as [IDb CH]. apply N.eqb_eq in IDb. apply ty_eqb_eq in TY. apply chi_eqb_eq in CH.
  destruct (cs_switch _ _ _ _ _ _ _ _ CS) as (c1 & c3 & C1 & GC & ->).
  rewrite removelast_last in GC.
  (* the scrutinee *)
  destruct (hrel_last_entry (ptypes p) CLO c0 b he0 x _ q hs s sp R ltac:(congruence))
    as (L0 & _ & _ & K2 & dw & t1 & t2 & T1 & T2 & L1 & L2 & X).
  cbn in K2. rewrite <- K2 in *.
  set (fresh := type_label (Decl tn) (lc + 1)%N) in *.
  inversion X as [|tn1 tag1 fs1 q1 a1 TW XF|]; subst. clear X.
  destruct TW as (d & k' & xk & FD & XP' & -> & FX & SK).
  unfold cls_ok, type_xtors in CO. cbn [sigs_of sg_types] in CO. rewrite FD in CO.
  destruct (find_clause_pos cls (txtors d) tag cl 0%N CO FC) as (k & xk0 & Hk & Hxk & XP & FX' & SMk).
  assert (xk0 = xk) by congruence. subst xk0.
  assert (Ek : k' = N.of_nat k) by (rewrite XP in XP'; inversion XP'; lia). subst k'.
  destruct (bind_snd _ _ _ BD) as [E1S E1N].
  (* the label, the table, the clauses *)
  pose proof CA as CA0. apply code_at_app in CA as [CA1 CA]. apply labels_at_nh_app in LA as [_ LA].
  set (pcl := padd pc (List.length c1)) in *.
  assert (CL0 : PM.find pcl (code im) = Some (LAB fresh)).
  { pose proof CA as X. rewrite <- app_assoc in X. cbn [app] in X. apply code_at_cons in X as [X _]. exact X. }
  destruct (io_addr im IMG pcl _ CL0) as (a & AL & GE).
  assert (FL : find_label (labels im) fresh = Some pcl).
  { pose proof LA as X. rewrite <- app_assoc in X. cbn [app] in X. rewrite (X O fresh eq_refl (NHL _)). reflexivity. }
  pose proof (label_addr_at im fresh pcl a FL AL) as LAD.
  destruct (dispatch_layout_exec im IMG (ptypes p) (fun cx lc0 => a_load cx c0 lc0) (fun cx => c0 ++ cx) pcl fresh cls c3 (lc + 1)%N lc' a
              CA LA (NHL _) GC AL k cl Hk) as (pcc & lcl & cl1 & lcb & cb & lcb' & LD & BDY & CAb & LAb & ONE & TAB).
  pose proof (hr_frame R) as F.
  (* control reaches the code of the clause; only X2, X3 change *)
  unfold clause in *.
  assert (JUMP : exists sj, exec_to im pc s pcc sj /\ frame_ok sj sp /\ heap sj = heap s /\ hframe_eq s sj sp /\
                            (forall l, loc_ok l -> l <> AR TEMP -> l <> AR TEMP2 -> lget sj sp l = lget s sp l)).
  { destruct (Nat.leb (List.length cls) 1) eqn:LE.
    - subst c1. destruct (ONE eq_refl) as (DOWN & _). exists s. split; [apply DOWN|]. split; [exact F|]. split; [reflexivity|].
      split; [apply hframe_eq_refl|auto].
    - destruct C1 as (tmpv & TVs & ->). destruct (TAB eq_refl) as (i & IX & PA & ARR).
      assert (tmpv = t2).
      { rewrite <- IDb in TVs. rewrite (vt_of_nth0 (c0 ++ [b]) (List.length c0) b (hr_nodup R) (nth_error_mid _ _ _)) in TVs.
        rewrite L0 in T2. congruence. }
      subst tmpv. unfold switch_head in CA1. unfold clause in CA1. rewrite LE in CA1.
      set (off := jump_length (N.of_nat k)) in *.
      assert (OFF : 0 <= off) by (unfold off, jump_length; lia).
      pose proof (SMALL _ _ PA) as SM.
      assert (WR : wrap (a + off) = a + off) by (apply wrap_small_range; unfold CODE_BASE in GE; lia).
      destruct (atpos_ok _ _ _ T2) as ((O2 & _) & _ & _).
      destruct (a64_switch_dispatch_ok im s sp t2 fresh a off F O2 LAD L2) as (sj & E & GO & KEEP & HEj & OUj).
      rewrite app_assoc in CA1. apply code_at_app in CA1 as [CAh CAj].
      cbn [a_jump] in CAj. apply code_at_cons in CAj as [CJ _].
      assert (LOC : local_code (a_load_label (AR TEMP) fresh ++ a_arith Sum (AR TEMP) (AR TEMP) t2) = true).
      { rewrite local_code_app, local_load_label, local_a_arith by reflexivity. reflexivity. }
      destruct (run_straight_local im _ s sp sj LOC F E) as [Fj FEj].
      exists sj. split; [|split; [exact Fj|split; [exact HEj|split; [apply frame_eq_hframe; exact FEj|exact KEEP]]]].
      eapply exec_to_trans; [apply (run_straight_exec_to im _ pc s sj CAh E)|].
      eapply exec_jump; [exact CJ| |apply ARR].
      rewrite GO, WR. unfold goto_addr. rewrite IX. reflexivity. }
  destruct JUMP as (sj & XJ & Fj & HEj & FEj & LGj).
  pose proof (hrel_temp _ _ _ s sj sp R Fj HEj LGj) as Rj.
  assert (LCb : lin_check (sigs_of p) (c0 ++ cl_ctx cl) (cl_body cl) = true).
  { unfold lin_clauses_sw in LCc. rewrite forallb_forall in LCc. apply LCc. eapply nth_error_In; eauto. }
  apply code_at_app in CAb as [CAl CAbd]. apply labels_at_nh_app in LAb as [LAl LAbd].
  assert (XFj : xflds (hword sj) fs q).
  { eapply HRep.xflds_ext; [|exact XF]. intros a0 _. apply hword_heap. exact HEj. }
  assert (LQ : lget sj sp (mtpos (2 * N.of_nat (List.length c0))) = Some q).
  { pose proof T1 as T1'. apply atpos_mtpos in T1' as [E1 _]. cbn [tnum_n] in E1. rewrite N.add_0_r, L0 in E1. rewrite <- E1.
    destruct (atpos_ok _ _ _ T1) as (((A1 & B1 & C1') & _) & _). rewrite LGj by assumption. exact L1. }
  assert (KIN : Forall2 (fun b0 f => chi_of f = bchi b0 /\ ty_of f = bty b0) (cl_ctx cl) fs).
  { apply sig_match_iff in SMk. exact (kinds_join _ _ _ SMk SK). }
  assert (E1F : env_ids e1 = ids (cl_ctx cl)).
  { unfold env_ids. rewrite <- (map_map fst idn), E1N. unfold vars, ids. now rewrite map_map. }
  destruct (hsim_load_any im (ptypes p) CLO c0 (cl_ctx cl) he0 x (VObj tn tag fs) q fs e1 hs sj sp lcl cl1 lcb pcc lk hl fl cl0
              (hrel_prefix (ptypes p) CLO c0 b he0 _ hs sj sp Rj) LQ XFj E1S E1F KIN (lin_nodup _ _ _ LCb) IA K03 RF HFr LD CAl LAl)
    as (s' & XL & FEL & RL).
  exists (padd pcc (List.length cl1)), lcb, cb, lcb', s'.
  split; [eapply exec_to_trans; eassumption|]. split; [exact BDY|]. split; [exact CAbd|]. split; [exact LAbd|]. split; [exact LCb|].
  split; [exact RL|eapply hframe_eq_trans; [exact FEj|exact FEL]].
Qed.

Theorem hsim_invoke c he hs s sp v tag t args cd lc lc' pc he0 x tn cls ce q cl e1 lk hl fl cl0 :
  hrel c he hs s sp ->
  AxSem.split_last 1 he = Some (he0, [(x, VClo tn cls ce, q)]) ->
  find_clause cls tag = Some cl -> bind (vars (cl_ctx cl)) (map snd (erase_env he0)) = Some e1 ->
  lin_check (sigs_of p) c (Invoke v tag t args) = true ->
  acs (ptypes p) (Invoke v tag t args) c lc = Ok (cd, lc') -> code_at im pc cd ->
  InvA X86Sem.HEAP_BASE hs (roots he) hl fl cl0 -> P03 hs -> Heap.frontier hs <= LIMIT ->
  (ce <> [] -> HeapRep.rep_flds lk (Heap.m hs) (map snd ce) q) ->
  exists pcb lcb cb lcb' s',
    (forall o, finishes im pcb s' o -> finishes im pc s o) /\
    acs (ptypes p) (cl_body cl) (cl_ctx cl ++ ctx_of_env ce) lcb = Ok (cb, lcb') /\ code_at im pcb cb /\ labels_at_nh im pcb cb /\
    lin_check (sigs_of p) (cl_ctx cl ++ ctx_of_env ce) (cl_body cl) = true /\
    ann_check (cl_ctx cl ++ ctx_of_env ce) (cl_body cl) = true /\ stmt_lits (cl_body cl) = true /\
    hrel (cl_ctx cl ++ ctx_of_env ce) (attach e1 (ptrs he0) ++ attach ce (load_ptrs hs (List.length ce) q))
         (hrun (load_ops (List.length ce) q) hs) s' sp /\
    hframe_eq s s' sp.
Proof.
  intros R SL FC BD LC CS CA IA K03 HFr RF.
  apply split_last1_inv in SL. subst he.
  cbn [lin_check] in LC. apply andb_true_iff in LC as [_ LC].
  destruct (split_lastn 1 c) as [[c0 [|b [|b' r]]]|] eqn:SLc; try discriminate.
  apply split_lastn_Some in SLc as [-> _].
  apply andb_true_iff in LC as [LC AO]. apply andb_true_iff in LC as [LC TY]. apply andb_true_iff in LC as [IDb CH].
  apply N.eqb_eq in IDb. apply ty_eqb_eq in TY. apply chi_eqb_eq in CH.
  (* the closure *)
  destruct (hrel_last_entry (ptypes p) CLO c0 b he0 x _ q hs s sp R ltac:(congruence))
    as (L0 & _ & _ & K2 & a & t1 & t2 & T1 & T2 & L1 & L2 & X).
  cbn in K2. rewrite <- K2 in *.
  inversion X as [| |tn1 cls1 ce1 q1 a1 CLOa XF]; subst. clear X.
  destruct CLOa as (CO & AB & ENTRY).
  destruct (cs_invoke _ _ _ _ _ _ _ _ _ CS) as (tmpv & d & TV & LT & _ & CODE).
  assert (TVeq : tmpv = t2).
  { rewrite <- IDb in TV. rewrite (vt_of_nth0 (c0 ++ [b]) (List.length c0) b (hr_nodup R) (nth_error_mid _ _ _)) in TV.
    rewrite L0 in T2. congruence. }
  subst tmpv.
  unfold cls_ok, type_xtors in CO. cbn [sigs_of sg_types] in CO.
  unfold lookup_type in LT.
  destruct (find (fun d => ident_eqb (tname d) tn) (ptypes p)) as [d'|] eqn:FD; [|discriminate]. inversion LT; subst d'. clear LT.
  destruct (find_clause_pos cls (txtors d) tag cl 0%N CO FC) as (k & xk & Hk & Hxk & XP & FX & SMk).
  pose proof (cls_sig_length _ _ CO) as LCL.
  destruct (ENTRY k cl Hk) as (i & pcc & lcl & cl1 & lcb & cb & lcb' & IX & SMa & ARR & LD & BDY & CAb & LAb & LCb & ANb & LITb).
  pose proof (hr_frame R) as F.
  assert (T2' : atpos Snd (List.length c0) = Ok t2) by (rewrite <- L0; exact T2).
  assert (T1' : atpos Fst (List.length c0) = Ok t1) by (rewrite <- L0; exact T1).
  destruct (atpos_ok _ _ _ T2') as (((Lt2 & Nt2 & Nt22) & _) & NFt2 & NHt2).
  destruct (atpos_ok _ _ _ T1') as (((Lt1 & Nt1 & Nt12) & _) & _).
  assert (NE12 : t1 <> t2).
  { intros E; subst. destruct (SubstGraph.tpos_inj a64_backend a64_backend_ok _ _ _ _ _ T1' T2') as [E _]. discriminate. }
  (* the arguments, relabelled *)
  assert (SM0 : sig_match c0 (cl_ctx cl) = true).
  { unfold args_ok, lookup_xtor, type_xtors in AO. cbn [sigs_of sg_types] in AO. rewrite FD, FX in AO. eapply sig_match_join; eauto. }
  assert (LC0 : List.length (cl_ctx cl) = List.length c0) by (apply sig_match_iff, same_kt_length in SM0; lia).
  assert (NDc : NoDup (ids (cl_ctx cl))).
  { pose proof (lin_nodup _ _ _ LCb) as X. unfold ids in *. rewrite map_app in X. eapply NoDup_app_l; eauto. }
  pose proof (hbind_rel (ptypes p) CLO c0 he0 hs s sp (cl_ctx cl) e1 (hrel_prefix (ptypes p) CLO c0 b he0 _ hs s sp R) NDc SM0 BD) as R1.
  assert (Le1 : List.length e1 = List.length (ptrs he0)).
  { destruct (bind_snd _ _ _ BD) as [_ B2]. apply (f_equal (@List.length ident)) in B2. unfold vars, ptrs, hentry in *. rewrite !map_length in *. lia. }
  (* what the jump leaves alone *)
  assert (KEEPJ : forall s', frame_ok s' sp -> frame_eq s s' sp ->
             (forall l, loc_ok l -> l <> AR TEMP -> l <> AR TEMP2 -> l <> t2 -> lget s' sp l = lget s sp l) ->
             hrel (cl_ctx cl) (attach e1 (ptrs he0)) hs s' sp /\ lget s' sp (mtpos (2 * N.of_nat (List.length (cl_ctx cl)))) = Some q /\
             hframe_eq s s' sp /\ heap s' = heap s).
  { intros s' F' FE' LG. pose proof FE' as (HE' & _ & _).
    split; [|split; [|split; [apply frame_eq_hframe; exact FE'|exact HE']]].
    - apply (hrel_keep (ptypes p) CLO _ _ hs s s' sp R1 F' HE').
      + apply (LG (AR HEAP)); [exact I|discriminate|discriminate|congruence].
      + apply (LG (AR FREE)); [exact I|discriminate|discriminate|congruence].
      + intros j bj n tj Hj _ Tj. destruct (atpos_ok _ _ _ Tj) as (((A & B & B2) & _) & _). apply LG; auto.
        assert (Lj : (j < List.length (cl_ctx cl))%nat) by (apply nth_error_Some; congruence).
        apply (atpos_other _ _ _ _ _ _ Tj T2'). lia.
    - rewrite LC0. pose proof T1' as T1''. apply atpos_mtpos in T1'' as [E1 _]. cbn [tnum_n] in E1. rewrite N.add_0_r in E1.
      rewrite <- E1. rewrite LG; auto. }
  set (off := if Nat.leb (List.length cls) 1 then 0 else jump_length (N.of_nat k)) in *.
  assert (GO : forall rj s1, rget s1 rj = Some (a + off) -> step im (BR rj) s1 = Jump s1 i).
  { intros rj s1 RG. cbn [step]. unfold need. rewrite RG. unfold goto_addr. now rewrite IX. }
  assert (JUMP : exists sj, exec_to im pc s i sj /\ hrel (cl_ctx cl) (attach e1 (ptrs he0)) hs sj sp /\
                            lget sj sp (mtpos (2 * N.of_nat (List.length (cl_ctx cl)))) = Some q /\ hframe_eq s sj sp /\ heap sj = heap s).
  { destruct (fetch_ok im s sp t2 a F Lt2 L2) as (s0 & E0 & V0 & F0 & FE0 & _ & K0).
    rewrite <- LCL in CODE. subst off. destruct (Nat.leb (List.length cls) 1) eqn:LE.
    - (* one destructor: branch through the register *)
      subst cd. rewrite Z.add_0_r in GO. rewrite a_jump_via in CA. apply code_at_app in CA as [CA0 CJ]. apply code_at_cons in CJ as [CJ _].
      destruct (KEEPJ s0 F0 FE0 (fun l Ll Nl _ _ => K0 l Ll Nl)) as (A1 & A2 & A3 & A4).
      exists s0. split; [|auto].
      eapply exec_to_trans; [apply (run_straight_exec_to im _ pc s s0 CA0 E0)|].
      eapply exec_jump; [exact CJ|apply (GO _ s0 V0)|apply exec_refl].
    - (* several destructors: add the table offset, then branch *)
      destruct CODE as (k' & XP' & ->). assert (k' = N.of_nat k) by (rewrite XP in XP'; inversion XP'; lia). subst k'.
      set (off := jump_length (N.of_nat k)) in *.
      assert (OFF : 0 <= off) by (unfold off, jump_length; lia).
      assert (W : wrap (a + off) = a + off) by (apply wrap_small_range; lia).
      assert (IV : add_imm_fits off = false -> in64 off) by (intros _; unfold in64, two63; lia).
      rewrite a_add_and_jump_via in CA. apply code_at_app in CA as [CA0 CA]. apply code_at_app in CA as [CA1 CJ].
      apply code_at_cons in CJ as [CJ _].
      destruct (via_reg t2 Lt2 Nt22 NFt2) as (n & EV & G & N3 & _). rewrite EV in *.
      destruct (a64_add_offset_ok im s0 n off a G N3 V0 IV) as (s1 & RS & VJ & KP & Hsp & Hh & Hst & Ho).
      rewrite W in VJ.
      destruct (KEEPJ s1) as (A1 & A2 & A3 & A4).
      { split; [rewrite Hsp; apply F0|apply F]. }
      { apply (frame_eq_trans s s0 s1 sp FE0). split; [exact Hh|]. split; [exact Ho|]. intros kk _. rewrite Hst. reflexivity. }
      { intros l Ll Nl N2 Nt. rewrite <- (K0 l Ll Nl). pose proof (via_other t2 l Nl Nt) as NV. rewrite EV in NV.
        destruct l as [[m| |]|ql]; cbn [loc_ok gp] in Ll; try contradiction; cbn [lget rget].
        - apply KP; [congruence|]. intros ->. apply N2. rewrite TEMP2_is. reflexivity.
        - unfold sget. rewrite Hst. reflexivity. }
      exists s1. split; [|auto].
      eapply exec_to_trans; [apply (run_straight_exec_to im _ pc s s0 CA0 E0)|].
      eapply exec_to_trans; [apply (run_straight_exec_to im _ _ s0 s1 CA1 RS)|].
      eapply exec_jump; [exact CJ|exact (GO (X n) s1 VJ)|apply exec_refl]. }
  destruct JUMP as (sj & XJ & Rj & LQ & FEj & HEj).
  apply code_at_app in CAb as [CAl CAbd]. apply labels_at_nh_app in LAb as [LAl LAbd].
  assert (XFj : xflds (hword sj) (map snd ce) q).
  { eapply HRep.xflds_ext; [|exact XF]. intros a0 _. apply hword_heap. exact HEj. }
  assert (IA' : InvA X86Sem.HEAP_BASE hs (roots (attach e1 (ptrs he0) ++ [(x, VClo tn cls ce, q)])) hl fl cl0).
  { assert (ER : roots (attach e1 (ptrs he0) ++ [(x, VClo tn cls ce, q)]) = roots (he0 ++ [(x, VClo tn cls ce, q)])).
    { unfold roots. f_equal. unfold ptrs at 1 3. rewrite !map_app. f_equal. exact (ptrs_attach e1 (ptrs he0) Le1). }
    rewrite ER. exact IA. }
  destruct (hsim_load_any im (ptypes p) CLO (cl_ctx cl) (ctx_of_env ce) (attach e1 (ptrs he0)) x (VClo tn cls ce) q (map snd ce) ce hs sj sp lcl cl1 lcb pcc lk hl fl cl0
              Rj LQ XFj eq_refl (ctx_of_env_ids ce) (ctx_of_env_kinds ce) (lin_nodup _ _ _ LCb) IA' K03
              ltac:(intros N; apply RF; intros ->; apply N; reflexivity) HFr LD CAl LAl)
    as (s' & XL & FEL & RL).
  rewrite ctx_of_env_length in RL.
  exists (padd pcc (List.length cl1)), lcb, cb, lcb', s'.
  split.
  { intros o FIN. apply (exec_to_finishes im _ _ _ _ o XJ). apply ARR. exact (exec_to_finishes im _ _ _ _ o XL FIN). }
  split; [exact BDY|]. split; [exact CAbd|]. split; [exact LAbd|]. split; [exact LCb|]. split; [exact ANb|]. split; [exact LITb|].
  split; [exact RL|eapply hframe_eq_trans; eassumption].
Qed.
End HC.
