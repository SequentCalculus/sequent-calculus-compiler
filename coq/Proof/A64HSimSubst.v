(* C07, forward simulation for HEAP statements on AArch64, part 5: Substitute with objects under `hrel`.  As in
   Proof/X86HSimSubst.v: phase 1 (erase / share of the instrumented machine's `subst_ops`, in the generator's order)
   through the exact-heap theorem `a64_emit_rc_ok` (Proof/A64Subst.v) and the abstraction `absH`
   (Proof/A64HSubstHeap.v); phase 2 = the parallel moves (`a64_parallel_moves_frame_ok`). *)
From Coq Require Import List ZArith NArith String Bool Lia FMapPositive Permutation.
From SCC Require Import Base.Sexp Lang.AxSyn Sem.AxSem Sem.AxHeap Model.ParMoves Model.Backend Model.A64 Sem.A64Sem
     Model.Linearize Model.LinCheck Generated.Constants Proof.LinBasics
     Proof.A64State Proof.A64ImmHw Proof.A64Imm Proof.A64Sel Proof.A64PM Proof.A64Exec
     Proof.A64MemSubst Proof.SubstGraph Proof.SubstBackends Proof.A64Subst Proof.A64Wf Proof.A64Print
     Proof.A64SimRel Proof.A64SimStmt Proof.HRep Proof.A64Mem Proof.A64MemOps Proof.A64HSimRel Proof.A64HConv Proof.A64HSimStore
     Proof.A64HSubstHeap.
From SCC Require Model.Heap Proof.HeapMore Proof.HeapTrace Proof.HeapRep Proof.AxHeapSubst
     Proof.X86Mem Proof.X86MemFrame Proof.X86HeapDefs Proof.X86HeapCongr Proof.X86HBridge Proof.X86HFrame Proof.X86Subst Proof.X86HSimSubst.
Import ListNotations.
Open Scope Z_scope.
Open Scope list_scope.

Notation hsubst_nth := X86HSimSubst.hsubst_nth.
Notation hsubst_ids := X86HSimSubst.hsubst_ids.
Notation hlookup_Some := X86HSimSubst.hlookup_Some.
Notation hlookup_nodup := X86HSimSubst.hlookup_nodup.
Notation subst_ops_order := X86HSimSubst.subst_ops_order.
Notation count_targets_le := X86Subst.count_targets_le.
Notation HB := X86HBridge.HB.
Notation hdr_bounds_x := X86HBridge.hdr_bounds_x.
Notation heq_rc_ops := X86HeapCongr.heq_rc_ops.
Notation rc_opnd_ok := X86HeapCongr.rc_opnd_ok.

Section HSubst.
Variable im : image.
Variable types : list tydecl.
Variable CLO : Z -> ident -> list clause -> ctx -> Prop.
Local Notation hrel := (hrel types CLO).
Local Notation hvrep := (hvrep types CLO).

(* phase 1: each reference-count instruction the generator emits for an object variable can be executed and stands for
   the operation the instrumented machine performs on the pointer of that variable *)
Lemma subst_rc_ops c he hs s sp re : hrel c he hs s sp -> (List.length re <= 141)%nat ->
  forall (order : list (nat * binding)) (ops : list (list (@SubstGraph.rc_op atemp))),
  Forall2 (fun ib o => exists t, atpos Fst (fst ib) = Ok t /\ o = rc_op_for t (count_targets re (snd ib))) order ops ->
  (forall i b, In (i, b) order -> nth_error c i = Some b /\ is_obj b = true) ->
  Forall (rc_ok s sp) (List.concat ops) /\ Forall (rc_good s sp) (List.concat ops) /\
  map (rc_abs s sp) (List.concat ops) =
    flat_map (fun b => AxHeap.rc_op (bchi b) (AxHeap.ptr_of he (idn (bvar b))) (count_targets re b)) (map snd order) /\
  (List.length (List.concat ops) <= List.length order)%nat.
Proof.
  intros R LR. pose proof (hrel_length R) as LEN.
  assert (NDe : NoDup (env_ids (erase_env he))) by (rewrite (hr_ids R); exact (hr_nodup R)).
  induction 1 as [|[i b] o order' ops' (t & Ht & ->) _ IHF]; intros SUB; cbn [List.concat map flat_map List.length].
  - repeat split; auto.
  - destruct (IHF (fun i0 b0 H0 => SUB i0 b0 (or_intror H0))) as (I1 & I2 & I3 & I4).
    cbn [fst snd] in *. destruct (SUB i b (or_introl eq_refl)) as [Hb Ho]. unfold is_obj in Ho.
    destruct (atpos_operand_ok Fst i t Ht) as (VT & NF & _).
    (* the entry of the variable, its pointer in the first temporary *)
    assert (Li : (i < List.length he)%nat) by (rewrite LEN; apply nth_error_Some; congruence).
    destruct (nth_error he i) as [[[x v] q]|] eqn:He; [|apply nth_error_None in He; lia].
    destruct (hr_vals R i x v q He) as (b' & Hb' & V). assert (b' = b) by congruence. subst b'.
    destruct (henv_ctx_nth c he i x v q (hr_ids R) He) as (b'' & Hb'' & Ex). assert (b'' = b) by congruence. subst b''. symmetry in Ex.
    assert (PQ0 : lget s sp t = Some q /\ (q = 0 \/ is_blk q)).
    { destruct V as [b z q t0 A B T Lg|b v q a t1 t2 A K1 K2 T1 T2 L1 L2 X]; [rewrite A in Ho; discriminate|].
      assert (t1 = t) by congruence. subst t1. split; [exact L1|]. eapply (HRep.xrep_ptr types CLO jump_length in64); eauto. }
    destruct PQ0 as [Lq Bq].
    assert (BO : q = 0 \/ block_ok q).
    { destruct Bq as [->|Bq]; [now left|right]. now apply is_blk_block_ok. }
    assert (PQ : A64Subst.ptr_of s sp t = q) by (unfold A64Subst.ptr_of; now rewrite Lq).
    assert (AQ : AxHeap.ptr_of he (idn (bvar b)) = q).
    { unfold AxHeap.ptr_of. rewrite <- Ex. change (idn x) with (idn (h_id (x, v, q))).
      rewrite (hlookup_nodup he i (x, v, q) NDe He). reflexivity. }
    pose proof (count_targets_le re b) as LE.
    rewrite !map_app, !app_length. rewrite AQ.
    destruct (count_targets re b) as [|[|k]] eqn:CT; cbn [rc_op_for map app List.length rc_abs].
    + split; [|split; [|split]].
      * constructor; [|exact I1]. unfold rc_ok; cbn [rc_temp]. split; [exact VT|split; [exact NF|exists q; auto]].
      * constructor; [|exact I2]. split; [cbn [rc_temp]; rewrite PQ; exact Bq|exact I].
      * rewrite PQ, I3. destruct (bchi b); try discriminate; reflexivity.
      * lia.
    + split; [exact I1|split; [exact I2|split]].
      * rewrite I3. destruct (bchi b); try discriminate; reflexivity.
      * lia.
    + split; [|split; [|split]].
      * constructor; [|exact I1]. unfold rc_ok; cbn [rc_temp]. split; [exact VT|split; [exact NF|exists q; auto]].
      * constructor; [|exact I2]. split; [cbn [rc_temp]; rewrite PQ; exact Bq|lia].
      * rewrite PQ, I3, nat_N_Z. destruct (bchi b); try discriminate; reflexivity.
      * lia.
Qed.

Theorem hsim_substitute c he hs s sp re he' c1 lc lc1 c2 pc hl fl cl :
  hrel c he hs s sp -> NoDup (new_ids re) ->
  (forall q, In q re -> has c (snd q) (bchi (fst q)) (bty (fst q)) = true) ->
  hsubst he re = Some he' -> ctx_of he = c ->
  InvA X86Sem.HEAP_BASE hs (roots he) hl fl cl -> P03 hs -> Heap.frontier hs <= LIMIT ->
  code_weakening_contraction a64_backend (transpose re c) c lc = Ok (c1, lc1) ->
  code_exchange a64_backend (transpose re c) c (map fst re) = Ok c2 ->
  code_at im pc (c1 ++ c2) -> labels_at_nh im pc (c1 ++ c2) ->
  exists s', exec_to im pc s (padd pc (List.length (c1 ++ c2))) s' /\
             hrel (map fst re) he' (hrun (subst_ops he re) hs) s' sp /\ hframe_eq s s' sp.
Proof.
  intros R NDn KIND HS CTX IA K03 HFr WC CE CA LA.
  pose proof (hr_nodup R) as NDc. pose proof (hr_frame R) as F. pose proof (hrel_length R) as LEN.
  pose proof (hrel_small types CLO _ _ _ _ _ R) as SMALL.
  apply code_at_app in CA as [CA1 CA2]. apply labels_at_nh_app in LA as [LA1 _].
  unfold code_exchange in CE.
  destruct (connections a64_backend (transpose re c) c (map fst re)) as [am|] eqn:CN; cbn [rbind] in CE; [|discriminate].
  assert (SRC : forall j pj, nth_error re j = Some pj ->
            exists i bi, nth_error c i = Some bi /\ idn (bvar bi) = idn (snd pj) /\
                         bchi bi = bchi (fst pj) /\ bty bi = bty (fst pj)).
  { intros j pj Hj. specialize (KIND pj (nth_error_In _ _ Hj)). unfold has in KIND.
    destruct (lookup_b c (idn (snd pj))) as [bi|] eqn:LB; [|discriminate].
    apply lookup_b_Some in LB as [Hin Hid]. apply andb_true_iff in KIND as [K1 K2].
    apply chi_eqb_eq in K1. apply ty_eqb_eq in K2. apply In_nth_error in Hin as (i & Hi). eauto 8. }
  assert (LR : (List.length re <= 141)%nat).
  { destruct (Nat.le_gt_cases (List.length re) 141) as [L|L]; [exact L|]. exfalso.
    assert (Hj : exists pj, nth_error re 141 = Some pj) by (clear - L; destruct (nth_error re 141) eqn:E; [eauto|apply nth_error_None in E; lia]).
    destruct Hj as (pj & Hj).
    destruct (SRC _ _ Hj) as (i & bi & Hi & Ei & _).
    destruct (subst_edge c re am Snd i bi 141%nat pj NDc NDn CN Hi (or_introl eq_refl) Hj (eq_sym Ei)) as (_ & tb & _ & Tb & _).
    vm_compute in Tb. discriminate. }
  assert (TMOK : forall b tg, In (b, tg) (transpose re c) -> In b c /\ tg = targets re b).
  { intros b tg Hb. now apply (In_transpose re c b tg (NoDup_map_inv _ _ NDc)) in Hb. }
  destruct (cwc_spec a64_backend c re NDc (transpose re c) lc c1 lc1 TMOK WC) as (order & OM & ORD & ops & F2 & EM).
  destruct (subst_rc_ops c he hs s sp re R LR order ops F2) as (RCOK & GOOD & OPSEQ & NOPS).
  { intros i b Hin. split; [exact (ORD i b Hin)|].
    assert (In b (map snd order)) as Hb by (apply in_map_iff; exists (i, b); auto).
    rewrite OM in Hb. apply filter_In in Hb. exact (proj2 Hb). }
  set (g := fun b : binding => AxHeap.rc_op (bchi b) (AxHeap.ptr_of he (idn (bvar b))) (count_targets re b)) in *.
  assert (LORD : (List.length order <= 141)%nat).
  { rewrite <- (map_length snd order), OM.
    assert (FL : forall (l : list binding), (List.length (filter is_obj l) <= List.length l)%nat).
    { induction l as [|a l IHl]; cbn [filter List.length]; [lia|]. destruct (is_obj a); cbn [List.length]; lia. }
    etransitivity; [apply FL|]. rewrite map_length.
    rewrite (Permutation_length (transpose_perm re c (NoDup_map_inv _ _ NDc))), map_length. lia. }
  assert (SOPS : subst_ops he re = flat_map g (map snd order)).
  { unfold subst_ops. rewrite CTX, OM. apply (subst_ops_order (fun b => AxHeap.ptr_of he (idn (bvar b))) re (transpose re c)).
    intros b tg Hb. exact (proj2 (TMOK b tg Hb)). }
  rewrite <- SOPS in OPSEQ.
  assert (EMc : c1 = fst (emit_rc a64_backend (List.concat ops) lc)) by (now rewrite <- EM).
  pose proof (hr_freereg R) as FR. set (f := Heap.free hs) in *.
  assert (LA1' : labels_at im pc c1) by (apply labels_at_of_nh; [rewrite EMc; apply nh_emit_rc|exact LA1]).
  rewrite EMc in CA1, LA1'.
  destruct (a64_emit_rc_ok im s sp (List.concat ops) pc lc s f RCOK (fun r _ _ _ => eq_refl) eq_refl CA1 LA1' F FR)
    as (s1 & f1 & X1 & X2 & X3 & X4 & X5 & X6).
  rewrite <- EMc in X1.
  (* the abstraction of the heap after phase 1 *)
  set (F0 := Heap.frontier hs). set (H0 := Heap.heap hs).
  pose proof (hr_heq R) as HQ. fold F0 in HQ.
  assert (EA : abs_heap F0 s = absH F0 H0 (heap s, f)).
  { rewrite <- absH_abs. unfold reg_or0. now rewrite (hr_heapreg R), FR. }
  assert (HB0 : hb2 HB (heap s, f)).
  { split; cbn [fst snd].
    - intros y Hy. destruct (heq_abs_ps F0 s hs y HQ Hy) as [_ E]. change (hget (heap s) y) with (hword s y). rewrite <- E.
      pose proof (hdr_bounds_x hs _ hl fl cl IA (P03_P3 _ K03) HFr ltac:(pose proof (roots_length he); lia) y Hy). lia.
    - unfold f. destruct (HeapRep.free_cases _ _ _ _ _ (proj1 IA)) as [[E _]|Hf].
      + rewrite E. pose proof (Heap.i_front _ _ _ _ _ (proj1 IA)). unfold X86HBridge.HB, X86HeapDefs.LIMIT in *; unfb; lia.
      + pose proof (Heap.i_below _ _ _ _ _ (proj1 IA) (Heap.free hs) ltac:(rewrite !in_app_iff; auto)). unfold X86HBridge.HB, X86HeapDefs.LIMIT in *; unfb; lia. }
  destruct (rc_fold_abs F0 H0 s sp (List.concat ops) (heap s, f) HB GOOD HB0 ltac:(unfold X86HBridge.HB, X86HeapDefs.LIMIT; unfb; lia)
              ltac:(unfold X86HBridge.HB; lia)) as (EQ1 & NB1 & FP1).
  cbv zeta in EQ1, NB1, FP1. rewrite <- X3 in EQ1, NB1, FP1. cbn [fst snd] in NB1, FP1.
  rewrite OPSEQ, <- EA in EQ1.
  set (hs2 := hrun (subst_ops he re) hs) in *.
  assert (HQ2 : heq (absH F0 H0 (heap s1, f1)) hs2).
  { eapply heq_eqB; [exact EQ1|]. apply heq_rc_ops; [exact HQ|].
    rewrite <- OPSEQ. apply Forall_forall. intros o Ho. apply in_map_iff in Ho as (o' & <- & Ho').
    pose proof (rc_abs_opnd s sp o') as G. rewrite Forall_forall in GOOD. specialize (G (GOOD o' Ho')).
    unfold rc_opnd_ok. destruct (rc_abs s sp o'); auto. }
  assert (F1 : frame_ok s1 sp).
  { destruct F as [A B]. split; [|exact B]. change (spv s1) with (rget s1 SP). rewrite X4; [exact A|discriminate|discriminate|discriminate]. }
  assert (AG : forall t, operand_ok t -> t <> AR FREE -> lget s1 sp t = lget s sp t).
  { intros t VT NF. apply lget_agree; auto. }
  (* phase 2: the parallel moves *)
  destruct (transpose_connections_indeg1 a64_backend a64_backend_ok c re am NDc NDn CN) as (IDG & NT & _ & _).
  pose proof (connections_edges a64_backend a64_backend_ok c re am NDc NDn CN) as EDG.
  pose proof (connections_amap_ok c re am NDc NDn CN) as AMOK.
  destruct (a64_parallel_moves_frame_ok im am c2 s1 sp IDG NT AMOK CE F1) as (s2 & E2 & P1 & P2 & F2' & SH & SO & _ & SK).
  pose proof (run_straight_exec_to im c2 _ s1 s2 CA2 E2) as X2'.
  assert (KEEPR : forall r, r = FREE \/ r = HEAP -> rget s2 r = rget s1 r).
  { intros r Hr. change (rget s2 r) with (lget s2 sp (AR r)). change (rget s1 r) with (lget s1 sp (AR r)).
    apply P2.
    + destruct Hr as [-> | ->]; (split; [exact I|split; discriminate]).
    + intros a E. apply EDG in E as (i & j & bi & pj & n & _ & _ & _ & _ & _ & Hb).
      destruct (atpos_operand_ok n j _ Hb) as (_ & N1 & N2). destruct Hr as [-> | ->]; congruence. }
  assert (EXT : forall a, ~ is_blk a -> hword s2 a = hword s a).
  { intros a Ha. unfold hword. rewrite SH. exact (NB1 a Ha). }
  exists s2. split; [rewrite app_length, padd_add; eapply exec_to_trans; eauto|]. split.
  - destruct HQ2 as (Q1 & Q2 & Q3 & Q4). cbn [absH Heap.heap Heap.free Heap.frontier fst snd] in Q1, Q2, Q3.
    assert (RH2 : rget s2 HEAP = Some H0).
    { rewrite (KEEPR HEAP (or_intror eq_refl)), X4; [exact (hr_heapreg R)|discriminate|discriminate|discriminate]. }
    assert (RF2 : rget s2 FREE = Some f1) by (rewrite (KEEPR FREE (or_introl eq_refl)); exact X2).
    destruct R as [Fr0 Ro Hr Frr HQ0 Ids ND0 Vals]. split; auto.
    + rewrite RH2. now rewrite Q1.
    + rewrite RF2. now rewrite Q2.
    + rewrite <- Q3. split; [|split; [|split]]; cbn [abs_heap Heap.heap Heap.free Heap.frontier]; unfold reg_or0; rewrite ?RH2, ?RF2; auto.
      intros y Hy. destruct (Q4 y Hy) as [QA QB]. rewrite <- QA, <- QB. cbn [abs_heap absH Heap.m Heap.hdr Heap.ps fst].
      unfold abs_mem, hword, hget. cbn [Heap.hdr Heap.ps]. rewrite SH. auto.
    + rewrite (hsubst_ids re he he' HS). now rewrite ids_new.
    + now rewrite ids_new.
    + intros j x v q Hj.
      destruct (hsubst_nth re he he' j x v q HS Hj) as (pj & en & Hre & HL & -> & -> & ->).
      exists (fst pj). split; [now rewrite nth_error_map, Hre|].
      destruct (hlookup_Some he _ en HL) as (i & Hi & Ei). destruct en as [[y w] p]. cbn [h_val h_ptr h_id fst snd] in *.
      destruct (Vals i y w p Hi) as (bi & Hbi & V).
      destruct (SRC j pj Hre) as (i' & bi' & Hi' & Ei' & KC & KT).
      assert (i' = i).
      { destruct (henv_ctx_nth c he i y w p Ids Hi) as (b0 & Hb0 & Eb0).
        eapply (ids_nth_inj c i' i bi' b0); eauto. congruence. }
      subst i'. assert (bi' = bi) by congruence. subst bi'.
      assert (MV : forall n ta, allowed n bi -> atpos n i = Ok ta -> exists tb, atpos n j = Ok tb /\ lget s2 sp tb = lget s sp ta).
      { intros n ta AL Ta.
        destruct (subst_edge c re am n i bi j pj NDc NDn CN Hbi AL Hre (eq_sym Ei')) as (ta' & tb & Ta' & Tb & ED).
        assert (ta' = ta) by congruence. subst ta'. exists tb. split; [exact Tb|].
        rewrite (P1 ta tb ED). destruct (atpos_operand_ok n i ta Ta) as (VT & NF & _). now apply AG. }
      apply (hvrep_move types CLO s s2 sp i j bi (fst pj) w p); [congruence|congruence| |exact MV|exact V].
      intros a. apply (HRep.xrep_ext types CLO jump_length in64). exact EXT.
  - split; [congruence|]. intros k Hk. rewrite (SK k Hk). now rewrite X5.
Qed.
End HSubst.
