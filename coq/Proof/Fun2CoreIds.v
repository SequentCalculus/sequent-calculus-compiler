(* Proof/Fun2CoreIds  -  every variable identifier of a fun2core output has id 0 (Identifier::new), so the
   output satisfies C03's precondition:   compile_prog p = Ok c -> pre_check c = true.
   Discharges the stage-output condition `pre_check c` of the compositions for fun2core outputs. *)
From Coq Require Import List ZArith NArith String Bool Lia.
From SCC Require Import Base.Sexp Lang.SynUtil Lang.FunSyn Lang.FunTy Lang.CoreSyn.
From SCC Require Import Model.Backend Model.Uniquify Model.FocusCheck Model.Fun2Core.
From SCC Require Import Proof.CoreInd Proof.SubstProof Proof.CheckLemmas Proof.PathLemmas
     Proof.Fun2CoreProof Proof.Fun2CoreTfv Proof.Fun2CoreInv Proof.Fun2CoreProg Proof.CoreTyFv Proof.Fun2CoreTyProg.
Import ListNotations.
Open Scope string_scope.
Open Scope list_scope.

Notation zt t := (ids_le_term 0 t = true).
Notation zs s := (ids_le_stmt 0 s = true).

(* the typed free variables of a statement carry ids of the statement *)
Lemma fv_ids_all : forall T,
  (forall t, ids_le_term T t = true -> forall b, In b (fvt t) -> (cid_id (cbvar b) <= T)%N) /\
  (forall a, ids_le_arg T a = true -> forall b, In b (fv_of_arg a) -> (cid_id (cbvar b) <= T)%N) /\
  (forall c, ids_le_clause T c = true -> forall b, fv_of_clause c b -> (cid_id (cbvar b) <= T)%N) /\
  (forall s, ids_le_stmt T s = true -> forall b, In b (fvs s) -> (cid_id (cbvar b) <= T)%N).
Proof.
  intros T. apply core_mutind.
  - intros c v t H b Hb. apply fvt_var in Hb. subst b. simpl in *. apply N.leb_le. exact H.
  - intros n _ b Hb. apply fvt_lit in Hb. contradiction.
  - intros a o b IHa IHb H bb Hb. simpl in H. apply andb_true_iff in H. destruct H as [H1 H2].
    apply fvt_op in Hb. destruct Hb as [Hb|Hb]; [apply IHa | apply IHb]; assumption.
  - intros c v s t IHs H b Hb. simpl in H. apply andb_true_iff in H. destruct H as [_ H]. apply fvt_mu_1 in Hb. apply IHs; assumption.
  - intros c x args t F H b Hb. simpl in H. apply fvt_xtor in Hb. apply fva_in in Hb. destruct Hb as [a [Ha Hb]].
    rewrite Forall_forall in F. rewrite forallb_forall in H. exact (F a Ha (H a Ha) b Hb).
  - intros c cls t F H b Hb. simpl in H. apply fvt_xcase in Hb. apply fvc_in in Hb. destruct Hb as [cl [Hc Hb]].
    rewrite Forall_forall in F. rewrite forallb_forall in H. exact (F cl Hc (H cl Hc) b Hb).
  - intros p IH H b Hb. exact (IH H b Hb).
  - intros k IH H b Hb. exact (IH H b Hb).
  - intros c x ctx body IH H b [Hb _]. simpl in H. apply andb_true_iff in H. destruct H as [_ H]. exact (IH H b Hb).
  - intros p t k IHp IHk H b Hb. simpl in H. apply andb_true_iff in H. destruct H as [H1 H2].
    apply fvs_cut in Hb. destruct Hb as [Hb|Hb]; [apply IHp | apply IHk]; assumption.
  - intros so a b t e IHa IHb IHt IHe H bb Hb. simpl in H.
    apply andb_true_iff in H. destruct H as [H He]. apply andb_true_iff in H. destruct H as [H Ht]. apply andb_true_iff in H. destruct H as [Ha Hb0].
    apply fvs_ifc in Hb. destruct Hb as [Hb|[Hb|[Hb|Hb]]]; [apply IHa; assumption | | apply IHt; assumption | apply IHe; assumption].
    destruct b as [b'|]; [|contradiction]. simpl in IHb. apply IHb; assumption.
  - intros nl a next IHa IHn H b Hb. simpl in H. apply andb_true_iff in H. destruct H as [H1 H2].
    apply fvs_print in Hb. destruct Hb as [Hb|Hb]; [apply IHa | apply IHn]; assumption.
  - intros f args t F H b Hb. simpl in H. apply fvs_call in Hb. apply fva_in in Hb. destruct Hb as [a [Ha Hb]].
    rewrite Forall_forall in F. rewrite forallb_forall in H. exact (F a Ha (H a Ha) b Hb).
  - intros a t IH H b Hb. simpl in H. apply fvs_exit in Hb. exact (IH H b Hb).
Qed.

Definition lifted0 (st : cstate) : Prop := Forall (fun d => ids_le_def 0 d = true) (st_lifted st).

Lemma cids0_compile_ctx : forall ctx, forallb (fun i => N.leb i 0) (cids (compile_ctx ctx)) = true.
Proof. induction ctx as [|b r IH]; simpl; [reflexivity | exact IH]. Qed.
Lemma forallb_app_true : forall (X : Type) (f : X -> bool) a b, forallb f a = true -> forallb f b = true -> forallb f (a ++ b) = true.
Proof. intros. rewrite forallb_app, H, H0. reflexivity. Qed.

Lemma args_of_bindings0 : forall bs, (forall b, In b bs -> (cid_id (cbvar b) <= 0)%N) -> forallb (ids_le_arg 0) (map arg_of_binding bs) = true.
Proof.
  induction bs as [|b r IH]; intros H; simpl; [reflexivity|]. rewrite IH; [|intros b' Hb'; apply H; right; exact Hb'].
  rewrite andb_true_r. pose proof (H b (or_introl eq_refl)) as Hb. unfold arg_of_binding. destruct (cbchi b); simpl; apply N.leb_le; exact Hb.
Qed.

Section Ids.
  Variable cdt : list ctydecl.
  Variable cur : string.
  Notation wc' := (wc cdt cur false).
  Notation cmp' := (cmp cdt cur false).

  Lemma share0 : forall cont st k st', share cur cont st = Ok (k, st') -> zt cont -> lifted0 st -> zt k /\ lifted0 st'.
  Proof.
    intros cont st k st' H Hc Hl. destruct (share_inv _ _ _ _ _ H) as [var [ty [body [stv [name [Hm [Hv [Hlift Hk]]]]]]]].
    assert (Hb : zs body /\ (cid_id var <= 0)%N /\ st_lifted stv = st_lifted st).
    { destruct (is_mu cont) eqn:Emu.
      - destruct cont; try discriminate. destruct Hm as [-> [-> [-> ->]]]. simpl in Hc. apply andb_true_iff in Hc. destruct Hc as [H1 H2].
        apply N.leb_le in H1. auto.
      - assert (Hm' : exists x, fresh_var st = Ok (x, stv) /\ var = new_id x /\ ty = cterm_type cont /\
                                body = CCut (CXVar CPrd (new_id x) ty) ty cont) by (destruct cont; try exact Hm; discriminate).
        destruct Hm' as [x [Hx [-> [_ ->]]]]. destruct (fresh_in_vars_inv _ _ _ _ Hx) as [_ [_ [_ Hl0]]].
        simpl. rewrite Hc. repeat split; auto. reflexivity. }
    destruct Hb as [Hb [Hvar Hls]].
    assert (Hfv : forall b, In b (tfv_stmt body []) -> (cid_id (cbvar b) <= 0)%N) by (apply (proj2 (proj2 (proj2 (fv_ids_all 0%N)))); exact Hb).
    split.
    - subst k. simpl. rewrite (args_of_bindings0 _ Hfv), andb_true_r. apply N.leb_le. exact Hvar.
    - unfold lifted0. rewrite Hlift, Hls. constructor; [|exact Hl]. unfold ids_le_def. simpl. rewrite Hb, andb_true_r.
      apply forallb_forall. intros i Hi. unfold cids in Hi. apply in_map_iff in Hi. destruct Hi as [b [<- Hb0]]. apply N.leb_le. apply Hfv. exact Hb0.
  Qed.

  Definition ZW (t : fterm) : Prop := forall cont st s st', wc' t cont st = Ok (s, st') -> zt cont -> lifted0 st -> zs s /\ lifted0 st'.
  Definition ZC (t : fterm) : Prop := forall ty st c st', cmp' t ty st = Ok (c, st') -> lifted0 st -> zt c /\ lifted0 st'.

  Lemma z_default : forall (w : cterm -> M cstmt) ty st c st',
    (forall cont st0 s st0', w cont st0 = Ok (s, st0') -> zt cont -> lifted0 st0 -> zs s /\ lifted0 st0') ->
    default_compile w ty st = Ok (c, st') -> lifted0 st -> zt c /\ lifted0 st'.
  Proof.
    intros w ty st c st' Hw H Hl. apply default_compile_inv in H. destruct H as [a [sta [s [Ha [Hs ->]]]]].
    destruct (fresh_in_vars_inv _ _ _ _ Ha) as [_ [_ [_ Hl0]]].
    destruct (Hw _ _ _ _ Hs eq_refl) as [Z1 Z2]; [unfold lifted0; rewrite Hl0; exact Hl|]. split; [simpl; exact Z1 | exact Z2].
  Qed.

  (* the repaired placement of a continuation under binders (fix d5d4151): < mu a. w(a) | cont > *)
  Lemma z_guard : forall binders (w : cterm -> M cstmt) lty,
    (forall cont st0 s st0', w cont st0 = Ok (s, st0') -> zt cont -> lifted0 st0 -> zs s /\ lifted0 st0') ->
    forall cont st s st', guard_capture false binders w lty cont st = Ok (s, st') -> zt cont -> lifted0 st -> zs s /\ lifted0 st'.
  Proof.
    intros binders w lty Hw cont st s st' H Hk Hl. apply guard_capture_inv in H.
    destruct H as [[_ H]|[_ [ty0 [a [sta [s0 [_ [Ha [_ [H ->]]]]]]]]]]; [eapply Hw; eauto|].
    destruct (fresh_in_vars_inv _ _ _ _ Ha) as [_ [_ [_ Hl0]]].
    destruct (Hw _ _ _ _ H eq_refl) as [Z1 Z2]; [unfold lifted0; rewrite Hl0; exact Hl|].
    split; [simpl; rewrite Z1, Hk; reflexivity | exact Z2].
  Qed.

  Lemma z_args : forall args, Forall ZC args -> forall st l st', subst_with (fun y => cmp' y) args st = Ok (l, st') ->
    lifted0 st -> forallb (ids_le_arg 0) l = true /\ lifted0 st'.
  Proof.
    intros args H. induction H as [|y r Hy Hr IH]; intros st l st' Hs Hl.
    - simpl in Hs. apply mret_inv in Hs. destruct Hs; subst. auto.
    - apply subst_with_cons_inv in Hs. destruct Hs as [a [st1 [rest [Ha [Hrest ->]]]]].
      apply compile_arg_inv in Ha. destruct Ha as [[v [ty [ty0 [_ [_ [-> ->]]]]]]|[_ [ty0 [c [_ [Ec ->]]]]]].
      + destruct (IH _ _ _ Hrest Hl) as [I1 I2]. simpl. rewrite I1. auto.
      + destruct (Hy _ _ _ _ Ec Hl) as [Y1 Y2]. destruct (IH _ _ _ Hrest Y2) as [I1 I2]. simpl. rewrite Y1, I1. auto.
  Qed.
  Lemma z_clauses : forall cls, Forall (fun c => ZW (clause_body c)) cls -> forall cont st l st',
    clauses_with (fun b => wc' b) cont cls st = Ok (l, st') -> zt cont -> lifted0 st ->
    forallb (ids_le_clause 0) l = true /\ lifted0 st'.
  Proof.
    intros cls H. induction H as [|c r Hc Hr IH]; intros cont st l st' Hs Hk Hl.
    - simpl in Hs. apply mret_inv in Hs. destruct Hs; subst. auto.
    - destruct c as [pl x names ctx body]. apply clauses_with_cons_inv in Hs. destruct Hs as [c' [st1 [rest [Ha [Hrest ->]]]]].
      apply compile_clause_inv in Ha. destruct Ha as [body' [Hb ->]]. simpl in Hc.
      destruct (Hc _ _ _ _ Hb Hk Hl) as [B1 B2]. destruct (IH _ _ _ _ Hrest Hk B2) as [I1 I2].
      simpl. rewrite cids0_compile_ctx, B1, I1. auto.
  Qed.
  Lemma z_coclauses : forall cls, Forall (fun c => ZW (clause_body c)) cls -> forall st l st',
    coclauses_with (fun b => wc' b) cls st = Ok (l, st') -> lifted0 st ->
    forallb (ids_le_clause 0) l = true /\ lifted0 st'.
  Proof.
    intros cls H. induction H as [|c r Hc Hr IH]; intros st l st' Hs Hl.
    - simpl in Hs. apply mret_inv in Hs. destruct Hs; subst. auto.
    - destruct c as [pl x names ctx body]. apply coclauses_with_cons_inv in Hs. destruct Hs as [c' [st1 [rest [Ha [Hrest ->]]]]].
      apply compile_coclause_inv in Ha. destruct Ha as [ty0 [a [sta [body' [_ [Hfr [Hb ->]]]]]]]. simpl in Hc.
      destruct (fresh_in_vars_inv _ _ _ _ Hfr) as [_ [_ [_ Hl0]]].
      destruct (Hc _ _ _ _ Hb eq_refl) as [B1 B2]; [unfold lifted0; rewrite Hl0; exact Hl|].
      destruct (IH _ _ _ Hrest B2) as [I1 I2].
      simpl. rewrite B1, I1. unfold cids. rewrite map_app. fold (cids (compile_ctx ctx)). rewrite forallb_app, cids0_compile_ctx. auto.
  Qed.

  Theorem z_all : forall t, ZW t /\ ZC t.
  Proof.
    apply wc_cmp_ind.
    - intros t Hv HC cont st s st' H Hk Hl. destruct (wc_value_form _ _ _ _ _ _ _ _ Hv H) as [c [Hcmp ->]].
      destruct (HC CI64 _ _ _ (Hcmp CI64) Hl) as [Z1 Z2]. simpl. rewrite Z1, Hk. auto.
    - intros t Hs HW ty st c st' H Hl. rewrite (cmp_stmt_form _ _ _ _ _ Hs) in H.
      eapply z_default; [exact HW | exact H | exact Hl].
    - intros v ty chi ty0 st c st' H Hl. rewrite cmp_unfold in H. apply cmp_var_inv in H. destruct H as [ty1 [_ [-> ->]]]. auto.
    - intros n ty0 st c st' H Hl. rewrite cmp_unfold in H. unfold cmp_lit in H. apply mret_inv in H. destruct H as [-> ->]. auto.
    - intros t1 o t2 C1 C2 ty0 st c st' H Hl. rewrite cmp_unfold in H. apply cmp_op_inv in H.
      destruct H as [a' [st1 [b' [E1 [E2 ->]]]]].
      destruct (C1 _ _ _ _ E1 Hl) as [A1 A2]. destruct (C2 _ _ _ _ E2 A2) as [B1 B2]. simpl. rewrite A1, B1. auto.
    - intros s t1 b t2 t3 ty C1 Cb W2 W3 cont st s0 st' H0 Hk Hl. rewrite wc_unfold in H0. apply wc_ifc_inv in H0.
      destruct H0 as [cont1 [st0 [a [sta [b' [stb [t [stt [e [Hsh [Ha [Hbb [Ht [He ->]]]]]]]]]]]]]].
      assert (Hc1 : zt cont1 /\ lifted0 st0).
      { destruct (cont_is_small cont); [destruct Hsh as [-> ->]; auto | eapply share0; eauto]. }
      destruct Hc1 as [Hk1 Hl0]. destruct (C1 _ _ _ _ Ha Hl0) as [A1 A2].
      assert (HB : match b' with Some b1 => zt b1 | None => True end /\ lifted0 stb).
      { destruct b as [b0|]; [destruct Hbb as [b1 [Hb1 ->]]; simpl in Cb; eapply Cb; eauto | destruct Hbb as [-> ->]; auto]. }
      destruct HB as [B1 B2]. destruct (W2 _ _ _ _ Ht Hk1 B2) as [T1 T2]. destruct (W3 _ _ _ _ He Hk1 T2) as [E1 E2].
      simpl. rewrite A1, T1, E1. destruct b'; [rewrite B1|]; auto.
    - intros nl t1 t2 ty C1 W2 cont st s0 st' H0 Hk Hl. rewrite wc_unfold in H0. apply wc_print_inv in H0.
      destruct H0 as [a [st1 [next [Ha [Hn ->]]]]].
      destruct (C1 _ _ _ _ Ha Hl) as [A1 A2]. destruct (W2 _ _ _ _ Hn Hk A2) as [N1 N2]. simpl. rewrite A1, N1. auto.
    - intros v vty t1 t2 ty W1 C1 W2 cont st s0 st' H0 Hk Hl. rewrite wc_unfold in H0. revert cont st s0 st' H0 Hk Hl. apply z_guard.
      intros cont st s0 st' H0 Hk Hl.
      destruct (ty_is_codata cdt (compile_ty vty)) eqn:Hcd.
      + apply wc_let_inv_codata in H0; [|exact Hcd]. destruct H0 as [body [st1 [pb [Hb [Hp ->]]]]].
        destruct (W2 _ _ _ _ Hb Hk Hl) as [B1 B2]. destruct (C1 _ _ _ _ Hp B2) as [P1 P2]. simpl. rewrite P1, B1. auto.
      + apply wc_let_inv in H0; [|exact Hcd]. destruct H0 as [body [st1 [Hb Hbd]]].
        destruct (W2 _ _ _ _ Hb Hk Hl) as [B1 B2]. eapply W1; [exact Hbd | simpl; exact B1 | exact B2].
    - intros f args ret HA cont st s0 st' H0 Hk Hl. rewrite wc_unfold in H0. apply wc_call_inv in H0.
      destruct H0 as [args' [ret0 [Hargs [_ ->]]]].
      destruct (z_args args HA _ _ _ Hargs Hl) as [A1 A2]. simpl. rewrite forallb_app, A1. simpl. rewrite Hk. auto.
    - intros x args ty HA ty0 st c st' H0 Hl. rewrite cmp_unfold in H0. apply cmp_ctor_inv in H0.
      destruct H0 as [args' [ty1 [Hargs [_ ->]]]].
      destruct (z_args args HA _ _ _ Hargs Hl) as [A1 A2]. simpl. auto.
    - intros t x targs args ty Ws HA cont st s0 st' H0 Hk Hl. rewrite wc_unfold in H0. apply wc_dtor_inv in H0.
      destruct H0 as [args' [st1 [sty0 [Hargs [_ Hscrut]]]]].
      destruct (z_args args HA _ _ _ Hargs Hl) as [A1 A2]. eapply Ws; [exact Hscrut | | exact A2].
      simpl. rewrite forallb_app, A1. simpl. rewrite Hk. reflexivity.
    - intros t targs cls ty Ws HB cont st s0 st' H0 Hk Hl. rewrite wc_unfold in H0. revert cont st s0 st' H0 Hk Hl. apply z_guard.
      intros cont st s0 st' H0 Hk Hl. apply wc_case_inv in H0.
      destruct H0 as [cont1 [st0 [cls' [st1 [sty0 [Hsh [Hcls [_ Hscrut]]]]]]]].
      assert (Hc1 : zt cont1 /\ lifted0 st0).
      { destruct (Nat.leb (List.length cls) 1 || cont_is_small cont); [destruct Hsh as [-> ->]; auto | eapply share0; eauto]. }
      destruct Hc1 as [Hk1 Hl0]. destruct (z_clauses cls HB _ _ _ _ Hcls Hk1 Hl0) as [C1 C2].
      eapply Ws; [exact Hscrut | simpl; exact C1 | exact C2].
    - intros cls ty HB ty0 st c st' H0 Hl. rewrite cmp_unfold in H0. apply cmp_new_inv in H0.
      destruct H0 as [cls' [ty1 [Hcls [_ ->]]]].
      destruct (z_coclauses cls HB _ _ _ Hcls Hl) as [C1 C2]. simpl. auto.
    - intros l t ty W ty0 st c st' H0 Hl. rewrite cmp_unfold in H0. apply cmp_label_inv in H0.
      destruct H0 as [ty1 [s0 [_ [Hs ->]]]].
      destruct (W _ _ _ _ Hs eq_refl Hl) as [Z1 Z2]. simpl. auto.
    - intros l t ty W cont st s0 st' H0 Hk Hl. rewrite wc_unfold in H0. apply wc_goto_inv in H0. destruct H0 as [ty0 [_ Hs]].
      eapply W; [exact Hs | reflexivity | exact Hl].
    - intros t ty Ca cont st s0 st' H0 Hk Hl. rewrite wc_unfold in H0. apply wc_exit_inv in H0.
      destruct H0 as [a [ty0 [Ha [_ ->]]]].
      destruct (Ca _ _ _ _ Ha Hl) as [A1 A2]. simpl. auto.
    - intros t W Ca. split.
      + intros cont st s0 st' H0. rewrite wc_unfold in H0. eapply W; eauto.
      + intros ty0 st c st' H0. rewrite cmp_unfold in H0. eapply Ca; eauto.
  Qed.
End Ids.

Lemma def_group0 : forall d cdt ul g ul', compile_def false d cdt ul = Ok (g, ul') -> forall x, In x g -> ids_le_def 0 x = true.
Proof.
  intros d cdt ul g ul' Hc.
  destruct (compile_def_inv _ _ _ _ _ _ Hc) as [bty [a [sta [body [st' [_ [Ha [Hwc [-> _]]]]]]]]].
  destruct (fresh_in_vars_inv _ _ _ _ Ha) as [_ [_ [_ Hl0]]]. simpl in Hl0.
  destruct (proj1 (z_all cdt (fdname d) (fdbody d)) _ _ _ _ Hwc eq_refl) as [Z1 Z2]; [unfold lifted0; rewrite Hl0; constructor|].
  intros x [<-|Hx].
  - unfold ids_le_def. simpl. rewrite Z1, andb_true_r. unfold cids. rewrite map_app. fold (cids (compile_ctx (fdctx d))).
    rewrite forallb_app, cids0_compile_ctx. reflexivity.
  - unfold lifted0 in Z2. rewrite Forall_forall in Z2. apply Z2. exact Hx.
Qed.
Lemma main_group0 : forall d cdt ul g ul', compile_main false d cdt ul = Ok (g, ul') -> forall x, In x g -> ids_le_def 0 x = true.
Proof.
  intros d cdt ul g ul' Hc.
  destruct (compile_main_inv _ _ _ _ _ _ Hc) as [bty [x0 [sta [body [st' [_ [Ha [Hwc [-> _]]]]]]]]].
  destruct (fresh_in_vars_inv _ _ _ _ Ha) as [_ [_ [_ Hl0]]]. simpl in Hl0.
  destruct (proj1 (z_all cdt (fdname d) (fdbody d)) _ _ _ _ Hwc eq_refl) as [Z1 Z2]; [unfold lifted0; rewrite Hl0; constructor|].
  intros x [<-|Hx].
  - unfold ids_le_def. simpl. rewrite Z1, andb_true_r. apply cids0_compile_ctx.
  - unfold lifted0 in Z2. rewrite Forall_forall in Z2. apply Z2. exact Hx.
Qed.

(* ids 0 everywhere: nothing to be unique about, every occurrence is in scope *)
Lemma scoped0_all : forall env,
  (forall t, ids_le_term 0 t = true -> scoped_term env t = true) /\
  (forall a, ids_le_arg 0 a = true -> scoped_arg env a = true) /\
  (forall c, ids_le_clause 0 c = true -> forall env', scoped_clause env' c = true) /\
  (forall s, ids_le_stmt 0 s = true -> forall env', scoped_stmt env' s = true).
Proof.
  intros env. (* the environment is irrelevant: state everything for all environments *)
  assert (H : (forall t, ids_le_term 0 t = true -> forall e, scoped_term e t = true) /\
              (forall a, ids_le_arg 0 a = true -> forall e, scoped_arg e a = true) /\
              (forall c, ids_le_clause 0 c = true -> forall e, scoped_clause e c = true) /\
              (forall s, ids_le_stmt 0 s = true -> forall e, scoped_stmt e s = true)).
  { apply core_mutind.
    - intros c v t H e. simpl in *. apply N.leb_le in H. assert (cid_id v = 0%N) by lia. rewrite H0. reflexivity.
    - reflexivity.
    - intros a o b IHa IHb H e. simpl in *. apply andb_true_iff in H. destruct H as [H1 H2]. rewrite (IHa H1), (IHb H2). reflexivity.
    - intros c v s t IHs H e. simpl in *. apply andb_true_iff in H. destruct H as [_ H]. apply IHs. exact H.
    - intros c x args t F H e. simpl in *. apply forallb_forall. intros a Ha. rewrite Forall_forall in F. rewrite forallb_forall in H. apply F; auto.
    - intros c cls t F H e. simpl in *. apply forallb_forall. intros a Ha. rewrite Forall_forall in F. rewrite forallb_forall in H. apply F; auto.
    - intros p IH H e. simpl in *. apply IH. exact H.
    - intros p IH H e. simpl in *. apply IH. exact H.
    - intros c x ctx body IH H e. simpl in *. apply andb_true_iff in H. destruct H as [_ H]. apply IH. exact H.
    - intros p t k IHp IHk H e. simpl in *. apply andb_true_iff in H. destruct H as [H1 H2]. rewrite (IHp H1), (IHk H2). reflexivity.
    - intros so a b t e0 IHa IHb IHt IHe H e. simpl in *.
      apply andb_true_iff in H. destruct H as [H He]. apply andb_true_iff in H. destruct H as [H Ht]. apply andb_true_iff in H. destruct H as [Ha Hb].
      rewrite (IHa Ha), (IHt Ht), (IHe He). destruct b as [b'|]; [simpl in IHb; rewrite (IHb Hb)|]; reflexivity.
    - intros nl a next IHa IHn H e. simpl in *. apply andb_true_iff in H. destruct H as [H1 H2]. rewrite (IHa H1), (IHn H2). reflexivity.
    - intros f args t F H e. simpl in *. apply forallb_forall. intros a Ha. rewrite Forall_forall in F. rewrite forallb_forall in H. apply F; auto.
    - intros a t IH H e. simpl in *. apply IH. exact H. }
  destruct H as [H1 [H2 [H3 H4]]]. repeat split; auto.
Qed.

Lemma pre_def0 : forall d, ids_le_def 0 d = true -> pre_def 0 d = true.
Proof.
  intros d H. unfold pre_def. rewrite H. simpl.
  assert (Hb : mem_le 0 (binder_ids_def d)).
  { unfold ids_le_def in H. apply andb_true_iff in H. destruct H as [H1 H2]. unfold binder_ids_def. apply mem_le_app. split.
    - intros i Hi. rewrite forallb_forall in H1. specialize (H1 i Hi). apply N.leb_le in H1. exact H1.
    - apply binders_le_stmt. exact H2. }
  assert (Hn : nonzero (binder_ids_def d) = []).
  { revert Hb. generalize (binder_ids_def d). induction l as [|x r IH]; intros Hb; [reflexivity|].
    unfold nonzero. simpl. assert (x = 0%N) by (specialize (Hb x (or_introl eq_refl)); lia). subst x. simpl.
    apply IH. intros i Hi. apply Hb. right. exact Hi. }
  rewrite Hn. simpl. unfold scoped_def. unfold ids_le_def in H. apply andb_true_iff in H. destruct H as [_ H2].
  apply (proj2 (proj2 (proj2 (scoped0_all [])))). exact H2.
Qed.

Theorem fun2core_pre_check : forall p c, compile_prog p = Fun2Core.Ok c -> pre_check c = true.
Proof.
  intros p c H. unfold compile_prog, compile_prog_gen in H.
  destruct (compile_defs false _ (fcpdefs p) _ _ [] []) as [defs|?] eqn:E; simpl in H; [|discriminate].
  injection H as <-. unfold pre_check. cbn [cpdefs cpmax]. apply forallb_forall. intros x Hx. apply pre_def0.
  destruct (compile_defs_cover _ _ _ _ _ _ _ _ E x Hx) as [[]|[[]|[d [ul1 [g [ul2 [[Hg|Hg] Hin]]]]]]];
    [eapply main_group0 | eapply def_group0]; eauto.
Qed.
