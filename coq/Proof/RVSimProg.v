(* C08, forward simulation of the RISC-V code generator: `sim_exec` - by induction on the
   fuel of the linear machine, the code emitted for a statement of the fragment `stmt_fr`, placed in an
   image in which the definitions' labels and `cleanup` resolve, runs to the machine's observation
   (results and undefined operations).  Progress is part of the proof: a `lin_check`ed statement never
   gets stuck under the relation. *)
From Coq Require Import List ZArith NArith String Bool Lia FMapPositive.
From SCC Require Import Base.Sexp Lang.AxSyn Sem.AxSem Model.ParMoves Model.Backend Model.RV Sem.RVSem Sem.RVWf
     Model.Linearize Model.LinCheck Generated.Constants Proof.LinBasics
     Proof.RVSel Proof.SubstGraph Proof.SubstBackends Proof.RVSubst Proof.RVSimAddr Proof.BackendInv Proof.RVSimRel Proof.RVSimStmt
     Proof.RVSimClo.
Import ListNotations.
Open Scope Z_scope.
Open Scope list_scope.

(* progress: operands are found *)
Lemma has_ext_lookup_int CL c e st a : rrel CL c e st -> has_ext c a = true -> exists x, lookup_int e a = Some x.
Proof.
  intros R H. unfold has_ext, has in H. destruct (lookup_b c (idn a)) as [b|] eqn:L; [|discriminate].
  apply lookup_b_Some in L as [Hin Hid]. apply andb_true_iff in H as [K T]. apply chi_eqb_eq in K. apply ty_eqb_eq in T.
  assert (I : In (idn a) (env_ids e)).
  { rewrite (rr_ids R), <- Hid. now apply In_ids. }
  destruct (SimFrag.lookup_of_in e _ I) as (v & Lv). destruct (SimFrag.lookup_nth e _ _ Lv) as (i & y & Hi & Ey).
  destruct (rr_vals R i y v Hi) as (b' & Hb' & V).
  destruct (SimFrag.env_ctx_nth c e i y v (rr_ids R) Hi) as (b0 & Hb0 & Eb0). assert (b0 = b') by congruence. subst b0.
  apply In_nth_error in Hin as (i' & Hi').
  assert (i' = i) by (eapply (ids_nth_inj c i' i b b'); eauto using (rr_nodup R); congruence). subst i'.
  assert (b' = b) by congruence. subst b'.
  inversion V; subst; [|congruence]. exists z. unfold lookup_int, lookup_id. now rewrite Lv.
Qed.
Lemma has_lookup_id CL c e st a k t : rrel CL c e st -> has c a k t = true -> exists v, lookup_id e a = Some v.
Proof.
  intros R H. unfold has in H. destruct (lookup_b c (idn a)) as [b|] eqn:L; [|discriminate].
  apply lookup_b_Some in L as [Hin Hid]. apply SimFrag.lookup_of_in. rewrite (rr_ids R), <- Hid. now apply In_ids.
Qed.

Section Main.
Variable im : image.
Variable p : prog.
Variable clo : bool.
Variable stop : positive.
Hypothesis IMG : rimg_ok im.
Hypothesis EVEN : forall pc a, PM.find pc (addr_of im) = Some a -> a mod 2 = 0.
Hypothesis SMALL : clo = true -> forall pc a, PM.find pc (addr_of im) = Some a -> a < 4611686018427387904 - 32.
Hypothesis ENC : forall pc c, PM.find pc (code im) = Some c -> instr_wf c = true.
Hypothesis STOPL : find_label (labels im) "cleanup" = Some stop.
Hypothesis STOPC : exists l, PM.find stop (code im) = Some (LAB l).
Hypothesis ENDC : PM.find (Pos.succ stop) (code im) = None.
Notation CLO := (clo_ok im p clo).
Local Notation rrel := (rrel CLO).
Hypothesis DEFS : forall d, In d (pdefs p) ->
  exists pcd lcd cd lcd', find_label (labels im) (show_ident (dname d) +++ "_") = Some pcd /\
    (exists a, PM.find pcd (code im) = Some (LAB (show_ident (dname d) +++ "_")) /\ PM.find pcd (addr_of im) = Some a) /\
    rcs (ptypes p) (dbody d) (dctx d) lcd = Ok (cd, lcd') /\ placed im (Pos.succ pcd) cd.
Hypothesis LIN : forall d, In d (pdefs p) -> lin_check (sigs_of p) (dctx d) (dbody d) = true.
Hypothesis FRG : forall d, In d (pdefs p) -> stmt_fr clo (dbody d) = true.

Lemma sim_exec : forall fuel s c e st pc cd lc lc',
  stmt_fr clo s = true -> lin_check (sigs_of p) c s = true ->
  rcs (ptypes p) s c lc = Ok (cd, lc') -> placed im pc cd ->
  rrel c e st ->
  SimFrag.not_oof (exec_linear fuel p e s []) -> rfin im stop pc st (exec_linear fuel p e s []).
Proof.
  induction fuel as [|fuel IH]; intros s c e st pc cd lc lc' SI LC CS PL R G.
  { exfalso. apply G. reflexivity. }
  destruct s as [re next|label args|v t tag args next|v t cls|v t env cls next|v tag t args|n v next|a op b v next|nl v next|so a b thenc elsec|v];
    try (cbn [stmt_fr] in SI; discriminate); cbn [exec_linear] in G |- *.
  - (* Substitute *)
    cbn [stmt_fr] in SI.
    cbn [lin_check] in LC. apply andb_true_iff in LC as [_ LC]. apply andb_true_iff in LC as [LCs LC].
    destruct (SimFrag.lookups_total e (map snd re)) as (vs & LK & LV).
    { intros x Hx. apply in_map_iff in Hx as (q & <- & Hq). rewrite forallb_forall in LCs. eapply (has_lookup_id CLO); eauto. }
    destruct (SimFrag.bind_total (map (fun r : binding * ident => bvar (fst r)) re) vs) as (e' & BD); [rewrite LV, !map_length; reflexivity|].
    rewrite LK, BD in G |- *.
    destruct (cs_substitute _ _ _ _ _ _ _ _ CS) as (c1 & lc1 & c2 & c3 & WC & CE & NX & ->). cbn [b_mark rv_backend app] in PL.
    assert (NDn : NoDup (new_ids re)) by (rewrite <- ids_new; exact (SimFrag.lin_nodup _ _ _ LC)).
    rewrite app_assoc in PL. apply placed_app in PL as [PL2 PL3].
    destruct (sim_substitute im CLO c e st re vs e' c1 lc lc1 c2 pc R NDn) as (s' & X & R' & _); auto.
    { intros q Hq. rewrite forallb_forall in LCs. exact (LCs q Hq). }
    apply (star_rfin im stop STOPC ENDC _ _ _ _ _ X). exact (IH next _ e' s' _ c3 lc1 lc' SI LC NX PL3 R' G).
  - (* Call *)
    cbn [lin_check] in LC. apply andb_true_iff in LC as [_ LC].
    destruct (lookup_label (sigs_of p) label) as [ps|] eqn:LL; [|discriminate].
    destruct (SimFrag.lookup_label_find_def p label ps LL) as (d & FD & <-).
    destruct (SimFrag.bind_total (vars (dctx d)) (map snd e)) as (e' & BD).
    { apply sig_match_iff, same_kt_length in LC. unfold vars. rewrite !map_length, (rr_length R). auto. }
    rewrite FD, BD in G |- *.
    unfold find_def in FD. apply find_some in FD as [IN EQ]. apply ident_eqb_eq in EQ. subst label.
    destruct (DEFS d IN) as (pcd & lcd & cdd & lcd' & FL & CLb & CSd & PLd).
    pose proof (sim_call im st _ _ _ _ _ _ _ pc pcd CS (proj1 PL) FL CLb) as X.
    apply (star_rfin im stop STOPC ENDC _ _ _ _ _ X).
    apply (IH (dbody d) (dctx d) e' st _ cdd lcd lcd' (FRG d IN) (LIN d IN) CSd PLd); [|exact G].
    exact (rr_bind CLO c e st (dctx d) e' R (SimFrag.lin_nodup _ _ _ (LIN d IN)) LC BD).
  - (* Create *)
    destruct (stmt_fr_create _ _ _ _ _ _ SI) as (CLT & -> & NE & CFc & CFn).
    rewrite lin_check_create in LC. apply andb_true_iff in LC as [_ LC].
    cbn [List.length] in LC. unfold split_lastn in LC. cbn [Nat.leb] in LC. rewrite Nat.sub_0_r, firstn_all, skipn_all in LC.
    apply andb_true_iff in LC as [LC LCn]. apply andb_true_iff in LC as [LC LCc]. apply andb_true_iff in LC as [_ CO].
    assert (TN : exists tn, t = Decl tn).
    { unfold cls_ok, type_xtors in CO. destruct t as [|tn]; [discriminate|eauto]. }
    destruct TN as (tn & ->).
    cbn [ty_name List.length] in G |- *. unfold AxSem.split_last in G |- *. cbn [Nat.leb] in G |- *.
    rewrite Nat.sub_0_r, firstn_all, skipn_all in G |- *. cbn [env_ids map ids ids_eqb vars bind] in G |- *.
    assert (STAT : forall cl, In cl cls -> lin_check (sigs_of p) (cl_ctx cl) (cl_body cl) = true /\ stmt_fr clo (cl_body cl) = true).
    { intros cl Hcl. unfold lin_clauses_cr in LCc. rewrite forallb_forall in LCc. specialize (LCc cl Hcl). rewrite app_nil_r in LCc.
      unfold clauses_fr in CFc. rewrite forallb_forall in CFc. specialize (CFc cl Hcl). auto. }
    destruct (sim_create im p clo IMG EVEN SMALL c e st v tn cls next lc cd lc' pc CLT R (SimFrag.lin_nodup _ _ _ LCn) CS PL NE CO STAT)
      as (c3 & lc3 & rest & s' & -> & NX & X & R' & _).
    apply placed_app in PL as [_ PL]. apply placed_app in PL as [PL3 _]. cbn [List.length] in PL3.
    apply (star_rfin im stop STOPC ENDC _ _ _ _ _ X). exact (IH next _ _ s' _ c3 _ lc3 CFn LCn NX PL3 R' G).
  - (* Invoke *)
    destruct (invoke_progress im p clo c e st v tag t args R LC) as (e0 & x & tn & cls & cl & e1 & SL & IDX & FC & BD).
    rewrite SL, IDX, FC, BD in G |- *.
    destruct (sim_invoke im p clo c e st v tag t args cd lc lc' pc e0 x tn cls [] cl e1 R SL IDX FC BD LC CS (proj1 PL))
      as (pcb & lcb & cb & lcb' & s' & X & CSb & PLb & LCb & FRb & R' & _).
    apply (star_rfin im stop STOPC ENDC _ _ _ _ _ X).
    exact (IH (cl_body cl) (cl_ctx cl) _ s' pcb cb lcb lcb' FRb LCb CSb PLb R' G).
  - (* Literal *)
    cbn [stmt_fr] in SI. cbn [lin_check] in LC. apply andb_true_iff in LC as [_ LC].
    destruct (cs_literal _ _ _ _ _ _ _ _ _ CS) as (tv & c2 & TV & NX & ->). cbn [b_mark b_load_immediate rv_backend app] in PL.
    apply placed_app in PL as [PL1 PL2].
    destruct (sim_literal im CLO c e st n v tv pc R (SimFrag.lin_nodup _ _ _ LC) TV (proj1 PL1)) as (s' & X & R' & _).
    apply (star_rfin im stop STOPC ENDC _ _ _ _ _ X). exact (IH next _ _ s' _ c2 lc lc' SI LC NX PL2 R' G).
  - (* Op *)
    cbn [stmt_fr] in SI. cbn [lin_check] in LC. apply andb_true_iff in LC as [_ LC]. apply andb_true_iff in LC as [LCo LC].
    apply andb_true_iff in LCo as [HA HB].
    destruct (has_ext_lookup_int CLO c e st a R HA) as (x & LA1).
    destruct (has_ext_lookup_int CLO c e st b R HB) as (y & LB1).
    rewrite LA1, LB1 in G |- *.
    destruct (cs_op _ _ _ _ _ _ _ _ _ _ _ CS) as (tv & ta & tb & c2 & TV & TA & TB & NX & ->). cbn [b_mark b_arith rv_backend app] in PL.
    apply placed_app in PL as [PL1 PL2].
    destruct (eval_op op x y) as [z|w] eqn:EV.
    + destruct (sim_op im CLO c e st a op b v x y z tv ta tb pc R (SimFrag.lin_nodup _ _ _ LC) LA1 LB1 EV TV TA TB (proj1 PL1)) as (s' & X & R' & _).
      replace (List.length (r_arith op tv ta tb)) with 1%nat in PL2 by (destruct op; reflexivity).
      apply (star_rfin im stop STOPC ENDC _ _ _ _ _ X). exact (IH next _ _ s' _ c2 lc lc' SI LC NX PL2 R' G).
    + destruct (sim_op_undef im CLO c e st a op b v x y w tv ta tb R (SimFrag.lin_nodup _ _ _ LC) LA1 LB1 EV TV TA TB) as (ci & E & ST).
      rewrite E in PL1. destruct (proj1 PL1 O ci eq_refl) as (HC & (ad & HA')). cbn [padd] in HC, HA'.
      exact (rfin_undef im stop STOPC pc ci ad st w st HC HA' (ST ad)).
  - (* IfC *)
    cbn [stmt_fr] in SI. apply andb_true_iff in SI as [SI1 SI2].
    cbn [lin_check] in LC. apply andb_true_iff in LC as [_ LC].
    apply andb_true_iff in LC as [LC LCe]. apply andb_true_iff in LC as [LCo LCt]. apply andb_true_iff in LCo as [HA HB].
    destruct (has_ext_lookup_int CLO c e st a R HA) as (x & LA1).
    assert (LB1 : exists y, match b with Some b0 => lookup_int e b0 | None => Some 0 end = Some y).
    { destruct b as [b|]; [|eauto]. exact (has_ext_lookup_int CLO c e st b R HB). }
    destruct LB1 as (y & LB1). rewrite LA1, LB1 in G |- *.
    destruct (sim_ifc im CLO c e st so a b x y (ptypes p) thenc elsec lc cd lc' pc R LA1 LB1 CS PL)
      as (c2 & lc2 & c3 & -> & EL & TH & X).
    apply placed_app in PL as [_ PL]. apply placed_app in PL as [PL2 PL]. apply placed_app in PL as [_ PL3].
    rewrite <- !padd_add in PL3. cbn [List.length] in PL2, PL3. rewrite Nat.add_assoc in PL3.
    apply (star_rfin im stop STOPC ENDC _ _ _ _ _ X).
    destruct (eval_cmp so x y).
    + exact (IH thenc c e st _ c3 lc2 lc' SI1 LCt TH PL3 R G).
    + exact (IH elsec c e st _ c2 _ lc2 SI2 LCe EL PL2 R G).
  - (* Exit *)
    cbn [lin_check] in LC. apply andb_true_iff in LC as [_ HV].
    destruct (has_ext_lookup_int CLO c e st v R HV) as (z & LV).
    rewrite LV in G |- *.
    destruct (sim_exit im CLO c e st v z (ptypes p) lc cd lc' pc stop R LV CS (proj1 PL) STOPL) as (s' & X & FC & _).
    apply (star_rfin im stop STOPC ENDC _ _ _ _ _ X). cbn [finish rev_append]. rewrite <- FC. apply rfin_stop; assumption.
Qed.
End Main.
