(* C08, forward simulation for HEAP statements, ALL statement forms: the program-level theorem.
   Every run of the linear AxCut machine that does not run out of fuel is reproduced by the RISC-V code on the ISA
   model, with the same observation, for every linearly checked program whose entry takes integers - objects and
   closure environments of ANY number of fields (chains of blocks).
     rv_codegen_simulates       for the residual predicate `k_frag` of Proof/RVKFrag.v (no print, annotated closures);
     rv_codegen_simulates_all   `k_frag` discharged: no print statement follows from `rv_compile ... = Ok` (the back end
                                rejects print), annotated closures from `ann_check_prog`.  No fragment predicate is left.
   Hypotheses as for the other back ends: the checks of C14 on the output (`asm_wf`, `code_small`; theorems under program
   guards, Proof/RVKWfCor.v), the capacity of the register file for the entry (`main_arity p <= 14`; every other context
   is within capacity because the code generator succeeded - RISC-V does not spill), `ann_check_prog`, `heap_fits`. *)
From Coq Require Import List ZArith NArith String Bool Lia FMapPositive Permutation.
From SCC Require Import Base.Sexp Lang.AxSyn Sem.AxSem Sem.AxHeap Model.ParMoves Model.Backend Model.RV Sem.RVSem Sem.RVWf
     Model.Linearize Model.LinCheck Model.Capacity Generated.Constants Proof.LinBasics Proof.LinTyping Proof.LinMachine
     Proof.RVSel Proof.SubstGraph Proof.SubstBackends Proof.RVSubst Proof.RVSimAddr Proof.BackendInv Proof.RVSimRel Proof.RVSimStmt
     Proof.RVSimClo Proof.RVSimProg Proof.RVSimTop
     Proof.RVHeapAbs Proof.RVHDefs Proof.RVHMem Proof.RVHBridge Proof.RVKSimRel Proof.RVKSimStmt Proof.RVKSimSubst
     Proof.RVKSimStore Proof.RVKSimLoad Proof.RVHLayout Proof.RVKFrag Proof.RVKClo Proof.X86HAnn
     Proof.RVKSimProgA Proof.RVKSimHeapB Proof.RVKSimHeapC Proof.RVKSimProg.
From SCC Require Model.Heap Proof.HeapMore Proof.HeapTrace Proof.HeapRep Proof.AxHeapErase Proof.AxHeapTyping Proof.AxHeapSafe.
From SCC Require Import Proof.RVHSimTop.
Import ListNotations.
Open Scope Z_scope.
Open Scope list_scope.

Theorem rv_codegen_simulates p lc cs n lc' args fuel o :
  k_frag p = true -> SimFrag.entry_int p = true -> lin_check_prog p = true -> ann_check_prog p = true ->
  rv_compile p lc = Ok (cs, n, lc') -> asm_wf cs = None -> code_small cs = true ->
  Nat.leb (main_arity p) 14 = true -> List.length args = n -> heap_fits p args ->
  run_linear fuel p args = o -> snd o <> OOutOfFuel ->
  exists outer inner, fst (run_rv outer inner cs args) = o.
Proof.
  intros FRG EI LIN ANN XC WF SM CAP.
  unfold rv_compile in XC. destruct (prog_has_print p) eqn:NP; [discriminate|].
  unfold compile in XC. destruct (pdefs p) as [|d0 rest] eqn:PD; [discriminate|].
  destruct (translate rv_backend (ptypes p) (d0 :: rest) lc) as [[is' lc1]|] eqn:TR; cbn [rbind] in XC; [|discriminate].
  cbn in XC. inversion XC; subst cs n lc'; clear XC.
  intros NARGS FITS RUN G.
  assert (FRG' : forall d, In d (pdefs p) -> stmt_k (dbody d) = true).
  { unfold k_frag in FRG. rewrite forallb_forall in FRG. exact FRG. }
  assert (LEN : List.length args = List.length (dctx d0)) by exact NARGS.
  assert (LE14 : (List.length args <= 14)%nat).
  { unfold main_arity in CAP. rewrite PD in CAP. apply Nat.leb_le in CAP. lia. }
  destruct (SimFrag.bind_total (vars (dctx d0)) (map VInt args)) as (e0 & EE); [unfold vars; rewrite !map_length; auto|].
  set (full := is' ++ [LAB "cleanup"%string]).
  set (im := mk_image full).
  pose proof (asm_wf_labels is' WF) as NDL. fold full in NDL.
  assert (PLF : placed im 1%positive full).
  { pose proof (placed_mk_image [] full []) as H. cbn [app List.length padd] in H. rewrite app_nil_r in H. exact (H NDL). }
  set (stop := padd 1%positive (List.length is')).
  assert (NTH : nth_error full (List.length is') = Some (LAB "cleanup"%string)) by (unfold full; apply nth_error_mid).
  assert (STOPL : find_label (labels im) "cleanup" = Some stop) by exact (proj2 PLF _ _ NTH).
  assert (STOPC : exists l, PM.find stop (code im) = Some (LAB l)) by (eexists; exact (proj1 (proj1 PLF _ _ NTH))).
  assert (ENDC : PM.find (Pos.succ stop) (code im) = None).
  { unfold stop. rewrite <- padd_1', <- padd_add. replace (List.length is' + 1)%nat with (List.length full) by (unfold full; now rewrite app_length).
    apply mk_image_code_end. }
  assert (IMG : rimg_ok im) by apply mk_image_ok.
  assert (FWD : fwd_ok im) by apply mk_image_fwd.
  assert (EVEN : forall pc a, PM.find pc (addr_of im) = Some a -> a mod 2 = 0) by (apply mk_image_even).
  assert (SMALL : forall pc a, PM.find pc (addr_of im) = Some a -> a < 4611686018427387904 - 32).
  { apply mk_image_small. apply code_small_cleanup. exact SM. }
  assert (ENC : forall pc c, PM.find pc (code im) = Some c -> instr_wf c = true).
  { intros pc c Hc. apply mk_image_code_in in Hc. unfold full in Hc. apply in_app_or in Hc as [Hc|[<-|[]]]; [|reflexivity].
    apply (asm_wf_enc is' WF c Hc). }
  assert (DEFS : forall d, In d (pdefs p) ->
    exists pcd lcd cd lcd', find_label (labels im) (show_ident (dname d) +++ "_") = Some pcd /\
      (exists a, PM.find pcd (code im) = Some (LAB (show_ident (dname d) +++ "_")) /\ PM.find pcd (addr_of im) = Some a) /\
      rcs (ptypes p) (dbody d) (dctx d) lcd = Ok (cd, lcd') /\ placed im (Pos.succ pcd) cd).
  { intros d Hd. rewrite PD in Hd.
    destruct (translate_defs rv_backend (ptypes p) _ _ _ _ TR d Hd) as (pre & lcd & cd & lcd' & post & EQ & CD).
    cbn [b_label rv_backend] in EQ.
    assert (PLd : placed im (padd 1%positive (List.length pre)) (LAB (show_ident (dname d) +++ "_") :: cd)).
    { assert (E : full = pre ++ (LAB (show_ident (dname d) +++ "_") :: cd) ++ (post ++ [LAB "cleanup"%string])).
      { unfold full. rewrite EQ. rewrite <- app_assoc. cbn [app]. rewrite <- app_assoc. reflexivity. }
      rewrite E in PLF. apply placed_app in PLF as [_ PLF]. apply placed_app in PLF as [PLF _]. exact PLF. }
    exists (padd 1%positive (List.length pre)), lcd, cd, lcd'.
    split; [exact (proj2 PLd O _ eq_refl)|]. split.
    - destruct (proj1 PLd O _ eq_refl) as (HC & (a & HA)). eauto.
    - split; [exact CD|]. change (LAB (show_ident (dname d) +++ "_") :: cd) with ([LAB (show_ident (dname d) +++ "_")] ++ cd) in PLd.
      apply placed_app in PLd as [_ PLd]. exact PLd. }
  (* the run of the instrumented machine *)
  assert (ERUN : o = fst (fst (hexec fuel p (mkhc (attach e0 []) (Heap.init HEAP_BASE) (dbody d0)) [] []))).
  { rewrite AxHeapErase.hexec_erase. cbn [hc_env hc_stmt]. rewrite AxHeapErase.erase_attach.
    unfold run_linear in RUN. rewrite PD in RUN. unfold entry_env in RUN. rewrite EE in RUN. congruence. }
  assert (D0 : In d0 (pdefs p)) by (rewrite PD; now left).
  assert (I1 : SimFrag.ctx_int (dctx d0) = true) by (unfold SimFrag.entry_int in EI; rewrite PD in EI; exact EI).
  assert (EI' : AxHeapTyping.entry_ext p = true).
  { unfold AxHeapTyping.entry_ext. rewrite PD. apply ctx_int_all_ext. exact I1. }
  assert (LINd : forall d, In d (pdefs p) -> lin_check (sigs_of p) (dctx d) (dbody d) = true).
  { unfold lin_check_prog in LIN. rewrite forallb_forall in LIN. exact LIN. }
  assert (HI0 : hinv p (attach e0 []) (Heap.init HEAP_BASE) (dbody d0)).
  { split.
    - apply (AxHeapSafe.hinit_inv HEAP_BASE d0 e0 args); [unfold HEAP_BASE; lia|exact EE].
    - apply (AxHeapTyping.hinit_wt HEAP_BASE p d0 rest e0 args LIN EI' PD EE).
    - apply P03_init.
    - intros tr c' HSs. apply (FITS tr c'). exists d0, rest, e0. repeat split; auto. }
  assert (FIN : rfin im stop 1%positive (init_state args) o).
  { cbn [translate] in TR.
    destruct (rcs (ptypes p) (dbody d0) (dctx d0) lc) as [[c0 lc0]|] eqn:C0; cbn [rbind] in TR; [|discriminate].
    destruct (translate rv_backend (ptypes p) rest lc0) as [[c2 lc2]|] eqn:TR2; cbn [rbind] in TR; [|discriminate].
    cbn in TR. inversion TR; subst is' lc1; clear TR.
    assert (PL0 : placed im 1%positive ([LAB (show_ident (dname d0) +++ "_")] ++ c0 ++ (c2 ++ [LAB "cleanup"%string]))).
    { unfold full in PLF. cbn [app] in PLF |- *. rewrite <- app_assoc in PLF. exact PLF. }
    pose proof PL0 as PL1. apply placed_app in PL1 as [PLl PL1]. apply placed_app in PL1 as [PLc _]. cbn [List.length padd] in PLc.
    eapply (star_rfin im stop STOPC ENDC).
    { eapply star_next; [exact (proj1 PLl)|reflexivity]. }
    rewrite ERUN.
    assert (R0 : hrel (ptypes p) (hclo_ok im p stop) (dctx d0) (attach e0 []) (Heap.init HEAP_BASE) (init_state args)).
    { eapply hentry_rel; eauto. eapply SimFrag.lin_nodup. exact (LINd d0 D0). }
    eapply proj1. eapply (hsim_exec im p stop IMG FWD EVEN SMALL STOPL STOPC ENDC DEFS LIN ANN FRG') with (c := dctx d0) (lc := lc); try eassumption.
    - exact (FRG' d0 D0).
    - exact (LINd d0 D0).
    - unfold ann_check_prog in ANN. rewrite forallb_forall in ANN. exact (ANN d0 D0).
    - rewrite attach_names. exact (SimFrag.bind_ids _ _ _ EE).
    - unfold SimFrag.not_oof. rewrite <- ERUN. exact G. }
  destruct (rfin_run im stop _ _ _ FIN) as (outer & inner & RN).
  exists outer, inner. unfold run_rv. cbv zeta. fold full. fold im.
  assert (HD : exists l r, is' = LAB l :: r).
  { cbn [translate] in TR. destruct (rcs (ptypes p) (dbody d0) (dctx d0) lc) as [[c0 lc0]|]; cbn [rbind] in TR; [|discriminate].
    destruct (translate rv_backend (ptypes p) rest lc0) as [[c2 lc2]|]; cbn [rbind] in TR; [|discriminate].
    cbn in TR. inversion TR. eauto. }
  destruct HD as (l0 & r0 & HD). rewrite HD at 1.
  unfold im. rewrite (duplicate_labels_nil full NDL). fold im. rewrite STOPL.
  destruct (Nat.ltb_spec 14 (List.length args)); [lia|]. exact RN.
Qed.

Theorem rv_codegen_simulates_all p lc cs n lc' args fuel o :
  SimFrag.entry_int p = true -> lin_check_prog p = true -> ann_check_prog p = true ->
  rv_compile p lc = Ok (cs, n, lc') -> asm_wf cs = None -> code_small cs = true ->
  Nat.leb (main_arity p) 14 = true -> List.length args = n -> heap_fits p args ->
  run_linear fuel p args = o -> snd o <> OOutOfFuel ->
  exists outer inner, fst (run_rv outer inner cs args) = o.
Proof.
  intros EI LIN ANN XC. apply (rv_codegen_simulates p lc cs n lc' args fuel o); auto.
  apply k_frag_intro; [|exact ANN].
  unfold rv_compile in XC. destruct (prog_has_print p); [discriminate|reflexivity].
Qed.
