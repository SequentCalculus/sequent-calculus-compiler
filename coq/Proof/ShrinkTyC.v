(* Proof/ShrinkTyC.v (C12, fragment 2; "C" for the typing Contexts) - the setting of the typing lemma: introduction lemmas for the
   AxCut checker Sem/AxCheck.v (one per statement form); the type declarations of the shrunk program and
   signatures under the chirality collapse; the relation between the typing context of a focused
   statement and the AxCut context of its image; the statement [TLs] of the typing lemma (the image of a
   well-typed focused statement is well-typed in the AxCut context that binds the renamed variables of
   its context; proved for all statements as [TL_all] in Proof/ShrinkTyEta.v) and its context lemmas. *)
From Coq Require Import List ZArith NArith String Bool Lia.
From SCC Require Import Proof.CoreInd.
From SCC Require Import Base.Sexp Lang.SynUtil Lang.CoreSyn Lang.AxSyn Sem.FsCheck Model.Shrink Model.LinCheck
     Model.WtDefs Proof.ShrinkProof Proof.ShrinkRn Proof.ShrinkSimEta Proof.ShrinkSimBase Proof.ShrinkTfv.
From SCC Require Sem.AxCheck.
Import ListNotations.
Open Scope list_scope.

Notation acheck := AxCheck.check_stmt.

Section Intro.
Variable ts : list tydecl.
Variable ds : list def.

Lemma bound_intro : forall G x c t b, AxCheck.lookup_b G (idn x) = Some b -> bchi b = c -> bty b = t -> AxCheck.bound G x c t = None.
Proof.
  intros G x c t b H <- <-. unfold AxCheck.bound. rewrite H.
  assert (chi_eqb (bchi b) (bchi b) = true) by (destruct (bchi b); reflexivity).
  assert (ty_eqb (bty b) (bty b) = true) by (destruct (bty b) as [|n]; [reflexivity | apply cident_eqb_refl]).
  rewrite H0, H1. reflexivity.
Qed.
Lemma fresh_for_intro : forall G v, ~ In (idn v) (ids G) -> AxCheck.fresh_for G v = None.
Proof.
  intros G v H. unfold AxCheck.fresh_for. destruct (AxCheck.lookup_b G (idn v)) as [b|] eqn:E; [|reflexivity].
  exfalso. apply H. clear H. induction G as [|b0 G IH]; [discriminate|]. simpl in *.
  destruct (N.eqb (idn (bvar b0)) (idn v)) eqn:Q; [left; now apply N.eqb_eq | right; now apply IH].
Qed.
Lemma fresh_all_intro : forall c G, NoDup (ids c) -> (forall i, In i (ids c) -> ~ In i (ids G)) -> AxCheck.fresh_all G c = None.
Proof.
  induction c as [|b r IH]; intros G Hnd Hdis; [reflexivity|]. simpl in *. inversion Hnd as [|? ? Hni Hnd']; subst.
  rewrite fresh_for_intro; [|apply Hdis; now left]. apply IH; [exact Hnd'|].
  intros i Hi [<-|Hg]; [contradiction | apply (Hdis i); [now right | exact Hg]].
Qed.

Lemma ck_exit : forall G v, AxCheck.bound G v Ext I64 = None -> acheck ts ds G (Exit v) = None.
Proof. intros. exact H. Qed.
Lemma ck_print : forall G nl v n, AxCheck.bound G v Ext I64 = None -> acheck ts ds G n = None -> acheck ts ds G (PrintI64 nl v n) = None.
Proof. intros G nl v n H1 H2. simpl. now rewrite H1. Qed.
Lemma ck_ifc : forall G so a b t e, AxCheck.bound G a Ext I64 = None ->
  match b with Some b' => AxCheck.bound G b' Ext I64 | None => None end = None ->
  acheck ts ds G t = None -> acheck ts ds G e = None -> acheck ts ds G (IfC so a b t e) = None.
Proof. intros G so a b t e H1 H2 H3 H4. simpl. now rewrite H1, H2, H3. Qed.
Lemma ck_literal : forall G z v n, AxCheck.fresh_for G v = None -> acheck ts ds (mkb v Ext I64 :: G) n = None ->
  acheck ts ds G (Literal z v n) = None.
Proof. intros G z v n H1 H2. simpl. now rewrite H1. Qed.
Lemma ck_op : forall G a o b v n, AxCheck.bound G a Ext I64 = None -> AxCheck.bound G b Ext I64 = None ->
  AxCheck.fresh_for G v = None -> acheck ts ds (mkb v Ext I64 :: G) n = None -> acheck ts ds G (Op a o b v n) = None.
Proof. intros G a o b v n H1 H2 H3 H4. simpl. now rewrite H1, H2, H3. Qed.
Lemma ck_call : forall G l args d, find (fun d => ident_eqb (dname d) l) ds = Some d ->
  (forall what, AxCheck.args_ok what G args (dctx d) = None) -> acheck ts ds G (Call l args) = None.
Proof. intros G l args d H1 H2. simpl. rewrite H1. apply H2. Qed.
Lemma ck_let : forall G v T tag args n d sg, AxCheck.find_type ts T = Some d -> AxCheck.find_xtor d tag = Some sg ->
  (forall what, AxCheck.args_ok what G args (xargs sg) = None) -> AxCheck.fresh_for G v = None ->
  acheck ts ds (mkb v Prd (Decl T) :: G) n = None -> acheck ts ds G (Let v (Decl T) tag args n) = None.
Proof. intros G v T tag args n d sg H1 H2 H3 H4 H5. simpl. rewrite H1. cbn. rewrite H2, H3, H4. exact H5. Qed.
Lemma ck_invoke : forall G v T tag args d sg, AxCheck.find_type ts T = Some d -> AxCheck.find_xtor d tag = Some sg ->
  AxCheck.bound G v Cns (Decl T) = None -> (forall what, AxCheck.args_ok what G args (xargs sg) = None) ->
  acheck ts ds G (Invoke v tag (Decl T) args) = None.
Proof. intros G v T tag args d sg H1 H2 H3 H4. simpl. rewrite H1. cbn. rewrite H2, H3. apply H4. Qed.

Definition cls_ok (G : ctx) (cls : list clause) (xs : list xtorsig) : Prop :=
  Forall2 (fun (c : clause) sg => fst (fst c) = xname sg /\ (forall what, AxCheck.params_ok what (snd (fst c)) (xargs sg) = None) /\
                       AxCheck.fresh_all G (snd (fst c)) = None /\ acheck ts ds (snd (fst c) ++ G) (snd c) = None) cls xs.
Lemma ident_eqb_refl : forall a : ident, ident_eqb a a = true.
Proof. exact cident_eqb_refl. Qed.
Lemma cls_ok_names : forall G cls xs, cls_ok G cls xs ->
  AxCheck.list_eq_names (map (fun c : ident * ctx * stmt => fst (fst c)) cls) (map xname xs) = true.
Proof.
  intros G cls xs H. induction H as [|c sg cls xs (Hn & _) _ IH]; [reflexivity|]. simpl. now rewrite Hn, ident_eqb_refl.
Qed.
Lemma ck_switch : forall G v T cls d, AxCheck.find_type ts T = Some d -> AxCheck.bound G v Prd (Decl T) = None ->
  cls_ok G cls (txtors d) -> acheck ts ds G (Switch v (Decl T) cls) = None.
Proof.
  intros G v T cls d H1 H2 H3. simpl. rewrite H1. cbn. rewrite H2, (cls_ok_names _ _ _ H3). cbn [negb andb].
  induction H3 as [|[[x c] b] sg cls xs (Hn & Hp & Hf & Hb) _ IH]; [reflexivity|]. simpl in *.
  rewrite Hn, ident_eqb_refl. cbn [AxCheck.ensure]. rewrite Hp, Hf, Hb. exact IH.
Qed.
Lemma ck_create : forall G v T cls n d, AxCheck.find_type ts T = Some d -> cls_ok G cls (txtors d) ->
  AxCheck.fresh_for G v = None -> acheck ts ds (mkb v Cns (Decl T) :: G) n = None ->
  acheck ts ds G (Create v (Decl T) None cls n) = None.
Proof.
  intros G v T cls n d H1 H3 H4 H5. simpl. rewrite H1. cbn. rewrite (cls_ok_names _ _ _ H3). cbn [negb andb].
  match goal with |- match ?X with Some e => Some e | None => _ end = None => assert (E : X = None) end.
  { clear H1 H4 H5. induction H3 as [|[[x c] b] sg cls xs (Hn & Hp & Hf & Hb) _ IH]; [reflexivity|]. simpl in *.
    rewrite Hn, ident_eqb_refl. cbn [AxCheck.ensure]. rewrite Hp, Hf, Hb. exact IH. }
  rewrite E, H4. exact H5.
Qed.
End Intro.

Lemma find_type_map : forall cd l T,
  AxCheck.find_type (map (shrink_declaration cd) l) T = option_map (shrink_declaration cd) (find_decl l T).
Proof.
  intros cd l T. unfold AxCheck.find_type, find_decl. induction l as [|d r IH]; [reflexivity|]. simpl.
  unfold shrink_identifier. change (ident_eqb (ctname d) T) with (cident_eqb (ctname d) T).
  destruct (cident_eqb (ctname d) T); [reflexivity | exact IH].
Qed.
Lemma find_type_app : forall l1 l2 T, AxCheck.find_type (l1 ++ l2) T =
  match AxCheck.find_type l1 T with Some d => Some d | None => AxCheck.find_type l2 T end.
Proof.
  intros l1 l2 T. unfold AxCheck.find_type. induction l1 as [|d r IH]; [reflexivity|]. simpl.
  destruct (ident_eqb (tname d) T); [reflexivity | exact IH].
Qed.
Lemma find_decl_app : forall l1 l2 T, find_decl (l1 ++ l2) T =
  match find_decl l1 T with Some d => Some d | None => find_decl l2 T end.
Proof.
  intros l1 l2 T. unfold find_decl. induction l1 as [|d r IH]; [reflexivity|]. simpl.
  destruct (cident_eqb (ctname d) T); [reflexivity | exact IH].
Qed.
Lemma find_xtor_shrink : forall cd d K sg, find_cxtor d K = Some sg ->
  AxCheck.find_xtor (shrink_declaration cd d) K = Some (shrink_xtor cd sg).
Proof.
  intros cd d K sg H. unfold AxCheck.find_xtor, find_cxtor in *. cbn [shrink_declaration txtors].
  induction (ctxtors d) as [|s r IH]; [discriminate|]. simpl in *. unfold shrink_identifier.
  change (ident_eqb (cxname s) K) with (cident_eqb (cxname s) K).
  destruct (cident_eqb (cxname s) K); [now inv H | now apply IH].
Qed.

Lemma chi_eqb_refl : forall c, chi_eqb c c = true.
Proof. destruct c; reflexivity. Qed.
Lemma ty_eqb_refl : forall t, ty_eqb t t = true.
Proof. destruct t as [|n]; [reflexivity | apply cident_eqb_refl]. Qed.
Lemma chi_eqb_eq : forall a b, chi_eqb a b = true -> a = b.
Proof. destruct a, b; simpl; congruence. Qed.
Lemma ty_eqb_eq : forall a b, ty_eqb a b = true -> a = b.
Proof. destruct a as [|x], b as [|y]; simpl; try congruence. intros H. apply cident_eqb_eq in H. now subst. Qed.
Lemma same_sig_shrink : forall cd a s, cbchi a = cbchi s -> cbty a = cbty s ->
  AxCheck.same_sig (shrink_binding cd a) (shrink_binding cd s) = true.
Proof.
  intros cd a s Hc Ht. destruct (shrink_binding_sig cd a s Hc Ht) as [H1 H2]. unfold AxCheck.same_sig.
  rewrite H1, H2, chi_eqb_refl, ty_eqb_refl. reflexivity.
Qed.
 Lemma params_ok_shrink : forall cd ctx sg, fparams_ok ctx sg = true ->
  forall what, AxCheck.params_ok what (shrink_context cd ctx) (shrink_context cd sg) = None.
Proof.
  induction ctx as [|a r IH]; intros [|s sr] H what; simpl in H; try discriminate; [reflexivity|].
  apply andb_prop in H as [H1 H2]. apply csame_sig_eq in H1 as [Hc Ht]. cbn [shrink_context map AxCheck.params_ok].
  rewrite (same_sig_shrink cd a s Hc Ht). cbn [AxCheck.ensure]. apply (IH sr H2).
Qed.
Lemma params_ok_fresh_env : forall bs st env st1, fresh_env bs st = (env, st1) ->
  forall what, AxCheck.params_ok what env bs = None.
Proof.
  induction bs as [|b r IH]; intros st env st1 H what; simpl in H.
  - inv H. reflexivity.
  - destruct (fresh_env r _) as [r' st2] eqn:Hr. inv H. cbn [AxCheck.params_ok]. unfold AxCheck.same_sig. cbn [bchi bty].
    rewrite chi_eqb_refl, ty_eqb_refl. cbn [andb AxCheck.ensure]. eapply IH; eauto.
Qed.
Lemma args_ok_self : forall env G, (forall b, In b env -> AxCheck.bound G (bvar b) (bchi b) (bty b) = None) ->
  forall what, AxCheck.args_ok what G env env = None.
Proof.
  induction env as [|b r IH]; intros G H what; [reflexivity|]. cbn [AxCheck.args_ok]. unfold AxCheck.same_sig.
  rewrite chi_eqb_refl, ty_eqb_refl. cbn [andb AxCheck.ensure]. rewrite (H b (or_introl eq_refl)). apply IH. intros b0 Hb0. apply H. now right.
Qed.
Lemma args_ok_sig : forall what G args sg sg', AxCheck.args_ok what G args sg = None ->
  AxCheck.params_ok what sg sg' = None -> AxCheck.args_ok what G args sg' = None.
Proof.
  intros what G. induction args as [|a r IH]; intros [|s sr] [|s' sr'] H1 H2; simpl in *; try discriminate; [reflexivity|].
  apply seq_none in H1 as [A1 H1]. apply seq_none in H1 as [A2 A3]. apply seq_none in H2 as [B1 B2].
  unfold AxCheck.ensure in A1, B1. destruct (AxCheck.same_sig a s) eqn:E1; [|discriminate]. destruct (AxCheck.same_sig s s') eqn:E2; [|discriminate].
  assert (AxCheck.same_sig a s' = true).
  { unfold AxCheck.same_sig in *. apply andb_prop in E1 as [C1 C2]. apply andb_prop in E2 as [C3 C4].
    apply chi_eqb_eq in C1. apply ty_eqb_eq in C2. rewrite C1, C2, C3, C4. reflexivity. }
  rewrite H. cbn [AxCheck.ensure]. rewrite A2. eapply IH; eauto.
Qed.

Section Ctx.
Variable p : fsprog.
Notation data := (fspdata p).
Notation codata := (fspcodata p).
Notation D := (data ++ [cont_int]).
Definition ts_of : list tydecl := map (shrink_declaration codata) D ++ map (shrink_declaration codata) codata.
Hypothesis Hdisj : forall n, find_decl data n <> None -> find_decl codata n = None.
Hypothesis Hcont : find_decl data cont_name = None /\ find_decl codata cont_name = None.

Lemma find_type_data : forall T d, find_decl data T = Some d -> AxCheck.find_type ts_of T = Some (shrink_declaration codata d).
Proof.
  intros T d H. unfold ts_of. rewrite find_type_app, find_type_map, find_decl_app, H. reflexivity.
Qed.
Lemma find_type_cont : AxCheck.find_type ts_of cont_name = Some (shrink_declaration codata cont_int).
Proof.
  unfold ts_of. rewrite find_type_app, find_type_map, find_decl_app. rewrite (proj1 Hcont). reflexivity.
Qed.
Lemma find_type_codata : forall T d, find_decl codata T = Some d -> AxCheck.find_type ts_of T = Some (shrink_declaration codata d).
Proof.
  intros T d H. unfold ts_of. rewrite find_type_app, !find_type_map, find_decl_app.
  destruct (find_decl data T) as [d0|] eqn:E; [rewrite Hdisj in H; [discriminate | congruence]|].
  assert (Hne : cident_eqb cont_name T = false).
  { destruct (cident_eqb cont_name T) eqn:Q; [|reflexivity]. apply cident_eqb_eq in Q. subst T. rewrite (proj2 Hcont) in H. discriminate. }
  unfold find_decl at 1. cbn [find cont_int ctname]. rewrite Hne. cbn [option_map]. rewrite H. reflexivity.
Qed.

(* the AxCut context of the image: every needed variable of G is bound, under its AxCut name, with
   the collapsed chirality and type *)
Definition grel (need : cident -> Prop) (pi : cident -> ident) (Ga : ctx) (G : cctx) : Prop :=
  forall b, In b G -> need (cbvar b) ->
  exists b', AxCheck.lookup_b Ga (idn (pi (cbvar b))) = Some b' /\
             bchi b' = bchi (shrink_binding codata b) /\ bty b' = bty (shrink_binding codata b).
Lemma grel_bound : forall (need : cident -> Prop) pi Ga G b, grel need pi Ga G -> In b G -> need (cbvar b) ->
  AxCheck.bound Ga (pi (cbvar b)) (bchi (shrink_binding codata b)) (bty (shrink_binding codata b)) = None.
Proof. intros need pi Ga G b H Hb Hn. destruct (H b Hb Hn) as (b' & Hl & Hc & Ht). eapply bound_intro; eauto. Qed.
Lemma shrink_rn_binding : forall rho a,
  bchi (shrink_binding codata (rn_binding rho a)) = bchi (shrink_binding codata a) /\
  bty (shrink_binding codata (rn_binding rho a)) = bty (shrink_binding codata a) /\
  bvar (shrink_binding codata (rn_binding rho a)) = rho (cbvar a).
Proof.
  intros rho a. split; [|split]; try apply shrink_binding_sig; try reflexivity. rewrite shrink_binding_var. reflexivity.
Qed.
Lemma args_ok_shrink : forall (need : cident -> Prop) rho th Ga G args sg,
  grel need (fun x => th (rho x)) Ga G ->
  (forall a, In a args -> In a G /\ need (cbvar a)) ->
  Forall2 (fun a s => cbchi a = cbchi s /\ cbty a = cbty s) args sg ->
  forall what, AxCheck.args_ok what Ga (arn_ctx th (shrink_context codata (rn_ctx rho args))) (shrink_context codata sg) = None.
Proof.
  intros need rho th Ga G args sg Hg Hargs Hsig what. induction Hsig as [|a s args sg [Hc Ht] _ IH]; [reflexivity|].
  cbn [rn_ctx shrink_context arn_ctx map AxCheck.args_ok].
  destruct (shrink_rn_binding rho a) as (E1 & E2 & E3). unfold arn_binding. cbn [bvar bchi bty]. unfold AxCheck.same_sig. cbn [bchi bty].
  rewrite E1, E2, E3. destruct (shrink_binding_sig codata a s Hc Ht) as [F1 F2]. rewrite F1, F2, chi_eqb_refl, ty_eqb_refl. cbn [andb AxCheck.ensure].
  destruct (Hargs a (or_introl eq_refl)) as [Ha Hn]. rewrite <- F1, <- F2. rewrite (grel_bound _ _ _ _ _ Hg Ha Hn).
  apply IH. intros a0 Ha0. apply Hargs. now right.
Qed.
Lemma fargs_sig : forall what G args sg, fargs_ok what G args sg = None ->
  Forall2 (fun a s => cbchi a = cbchi s /\ cbty a = cbty s) args sg.
Proof.
  intros what G. induction args as [|a r IH]; intros [|s sr] H; cbn [fargs_ok] in H; try discriminate; constructor.
  - apply seq_none in H as [H1 _]. apply fensure_none in H1. now apply csame_sig_eq.
  - apply seq_none in H as [_ H]. apply seq_none in H as [_ H]. now apply IH.
Qed.
End Ctx.

Section TyBase.
Variable p : fsprog.
Variable ds' : list def.
Notation data := (fspdata p).
Notation codata := (fspcodata p).
Notation defs := (fspdefs p).
Notation m0 := (fspmax p).
Notation D := (data ++ [cont_int]).
Notation ts := (ts_of p).

(* The ids of the AxCut context Ga are ids of G or fresh, and none of them is drawn by the call from st to st': this is
   what lets the expanded side of a critical pair be typed in the context of EACH clause, which holds ids drawn later. *)
Definition ginv (Ga : ctx) (G : cctx) (st st' : sst) : Prop :=
  forall i, In i (ids Ga) -> (In i (cids G) \/ (m0 < i)%N) /\ ~ (s_max st < i <= s_max st')%N.
Definition lifted_ok (d : def) : Prop :=
  acheck ts ds' (dctx d) (dbody d) = None /\ pre_linear (dbody d) = true /\ NoDup (ids (dctx d)) /\
  forallb (fun b => AxCheck.ty_declared ts (bty b)) (dctx d) = true.
Definition lift_wt (st : sst) : Prop := forall d, In d (s_lifted st) -> lifted_ok d.
Definition decl_ok (G : cctx) : Prop := forall b, In b G -> ty_ok data codata (cbty b) = true.
Definition lifted_in' (st : sst) : Prop := forall d, In d (s_lifted st) -> In d ds'.

(* The statement of the typing lemma, for shrinking fuel k; [rho], [th], [inv], [lbl] as in the simulation statement
   (Proof/ShrinkSimBase.v).  Ga binds every variable x of G that occurs in s under the id of th (rho x) with the collapsed
   chirality and type ([grel]); [ds'] are the definitions of the output, against which calls are checked; the lifted
   definitions are among them and those lifted before the call are well-typed ([lift_wt]); afterwards all are. *)
Definition TLs (k : nat) (s : fsstmt) : Prop :=
  forall lbl G rho th st t st' Ga,
    inv p G rho th st ->
    check_stmt data codata defs G s = None -> ub_stmt (cids G) s = true -> ib_stmt m0 s = true ->
    nc_stmt (cvars G) s = true -> decl_ok G ->
    shrink_stmt k (mksenv D codata lbl) (rn_stmt rho s) st = SOk (t, st') ->
    grel p (fun x => occurs x s) (fun x => th (rho x)) Ga G -> ginv Ga G st st' ->
    lifted_in' st' -> lift_wt st ->
    acheck ts ds' Ga (arn th t) = None /\ pre_linear t = true /\ lift_wt st'.
Definition TLn (k : nat) : Prop := forall s, TLs k s.

Lemma ginv_sub : forall Ga G st st' sa sb, ginv Ga G st st' ->
  (s_max st <= s_max sa)%N -> (s_max sb <= s_max st')%N -> ginv Ga G sa sb.
Proof. intros Ga G st st' sa sb H H1 H2 i Hi. destruct (H i Hi) as [A Bn]. split; [exact A|]. intros C. apply Bn. lia. Qed.
Lemma ginv_push_old : forall Ga G st st' v c t c' t', ginv Ga G st st' -> (cid_id v <= m0)%N -> (m0 <= s_max st)%N ->
  ginv (mkb v c' t' :: Ga) (mkcb v c t :: G) st st'.
Proof.
  intros Ga G st st' v c t c' t' H Hv Hm i [<-|Hi].
  - split; [left; now left|]. unfold idn, cid_id in *. cbn [bvar]. lia.
  - destruct (H i Hi) as [[A|A] Bn]; (split; [|exact Bn]); [left; now right | now right].
Qed.
Lemma ginv_fresh : forall Ga G st st' i, ginv Ga G st st' -> (s_max st < i <= s_max st')%N -> ~ In i (ids Ga).
Proof. intros Ga G st st' i H Hi Hin. destruct (H i Hin) as [_ Bn]. now apply Bn. Qed.
Lemma ginv_old : forall Ga G st st' i, ginv Ga G st st' -> ~ In i (cids G) -> (i <= m0)%N -> ~ In i (ids Ga).
Proof. intros Ga G st st' i H H1 H2 Hin. destruct (H i Hin) as [[A|A] _]; [contradiction | lia]. Qed.

Lemma lookup_b_in : forall Ga i b, AxCheck.lookup_b Ga i = Some b -> In i (ids Ga).
Proof.
  induction Ga as [|b0 Ga IH]; intros i b H; [discriminate|]. simpl in *.
  destruct (N.eqb (idn (bvar b0)) i) eqn:E; [left; now apply N.eqb_eq | right; eauto].
Qed.
Lemma grel_push : forall (need need' : cident -> Prop) pi pi' Ga G x c t x',
  grel p need pi Ga G -> ~ In (idn x') (ids Ga) ->
  (forall b, In b G -> need' (cbvar b) -> need (cbvar b) /\ idn (pi' (cbvar b)) = idn (pi (cbvar b))) ->
  idn (pi' x) = idn x' ->
  grel p need' pi' (mkb x' (bchi (shrink_binding codata (mkcb x c t))) (bty (shrink_binding codata (mkcb x c t))) :: Ga) (mkcb x c t :: G).
Proof.
  intros need need' pi pi' Ga G x c t x' Hg Hni Hpi Hx b [<-|Hb] Hn.
  - cbn [cbvar]. rewrite Hx. eexists. cbn [AxCheck.lookup_b bvar]. rewrite N.eqb_refl. split; [reflexivity|]. split; reflexivity.
  - destruct (Hpi b Hb Hn) as [Hn' Hid]. destruct (Hg b Hb Hn') as (b' & Hl & Hc & Ht). rewrite Hid. exists b'.
    cbn [AxCheck.lookup_b bvar]. destruct (N.eqb (idn x') (idn (pi (cbvar b)))) eqn:E; [|auto].
    apply N.eqb_eq in E. exfalso. apply Hni. rewrite E. eapply lookup_b_in; eauto.
Qed.
Lemma grel_weaken : forall (need need' : cident -> Prop) pi Ga G, grel p need pi Ga G -> (forall x, need' x -> need x) -> grel p need' pi Ga G.
Proof. intros need need' pi Ga G H Hn b Hb Hx. apply H; auto. Qed.
(* aliasing: Core parameters that are names of existing AxCut variables *)
Lemma grel_alias_list : forall (need need' : cident -> Prop) pi pi' Ga G ctx,
  grel p need pi Ga G ->
  (forall b, In b G -> need' (cbvar b) -> need (cbvar b) /\ idn (pi' (cbvar b)) = idn (pi (cbvar b))) ->
  (forall b, In b ctx -> exists a, In a G /\ need (cbvar a) /\ idn (pi' (cbvar b)) = idn (pi (cbvar a)) /\ cbchi a = cbchi b /\ cbty a = cbty b) ->
  grel p need' pi' Ga (ctx ++ G).
Proof.
  intros need need' pi pi' Ga G ctx Hg Hpi Hctx b Hb Hn. apply in_app_or in Hb as [Hb|Hb].
  - destruct (Hctx b Hb) as (a & Ha & Hna & Hid & Hc & Ht). destruct (Hg a Ha Hna) as (b' & Hl & Hc' & Ht').
    exists b'. rewrite Hid. split; [exact Hl|]. destruct (shrink_binding_sig codata a b Hc Ht) as [F1 F2]. rewrite <- F1, <- F2. auto.
  - destruct (Hpi b Hb Hn) as [Hn' Hid]. destruct (Hg b Hb Hn') as (b' & Hl & Hc & Ht). exists b'. rewrite Hid. auto.
Qed.
Lemma grel_push_list : forall (need need' : cident -> Prop) pi pi' Ga G ctx xs',
  grel p need pi Ga G ->
  (forall b, In b G -> need' (cbvar b) -> need (cbvar b) /\ idn (pi' (cbvar b)) = idn (pi (cbvar b))) ->
  NoDup (ids xs') -> (forall i, In i (ids xs') -> ~ In i (ids Ga)) ->
  Forall2 (fun b x' => idn (pi' (cbvar b)) = idn (bvar x') /\ bchi x' = bchi (shrink_binding codata b) /\ bty x' = bty (shrink_binding codata b)) ctx xs' ->
  grel p need' pi' (xs' ++ Ga) (ctx ++ G).
Proof.
  intros need need' pi pi' Ga G ctx xs' Hg Hpi Hnd Hdis HF.
  induction HF as [|b x' ctx xs' (Hid & Hc & Ht) _ IH].
  - simpl. intros b Hb Hn. destruct (Hpi b Hb Hn) as [Hn' Hid]. destruct (Hg b Hb Hn') as (b' & Hl & Hc & Ht). exists b'. rewrite Hid. auto.
  - cbn [ids map] in Hnd, Hdis. inversion Hnd as [|? ? Hni Hnd']; subst.
    specialize (IH Hnd' (fun i Hi => Hdis i (or_intror Hi))).
    intros b0 [<-|Hb0] Hn.
    + exists x'. cbn [app AxCheck.lookup_b]. rewrite Hid, N.eqb_refl. auto.
    + destruct (IH b0 Hb0 Hn) as (b' & Hl & Hc' & Ht'). exists b'. cbn [app AxCheck.lookup_b].
      destruct (N.eqb (idn (bvar x')) (idn (pi' (cbvar b0)))) eqn:E; [|auto].
      apply N.eqb_eq in E. exfalso. apply lookup_b_in in Hl. unfold ids in Hl. rewrite map_app in Hl. apply in_app_or in Hl as [Hl|Hl].
      * apply Hni. rewrite E. exact Hl.
      * apply (Hdis (idn (bvar x'))); [now left | rewrite E; exact Hl].
Qed.

(* an occurrence of the statement, typed and consistently named: bound on the AxCut side *)
Lemma occ_bound : forall (need : cident -> Prop) pi Ga G x c t, grel p need pi Ga G -> fbound G x c t = None -> nc_var (cvars G) x = true -> need x ->
  AxCheck.bound Ga (pi x) (bchi (shrink_binding codata (mkcb x c t))) (bty (shrink_binding codata (mkcb x c t))) = None.
Proof.
  intros need pi Ga G x c t Hg Hb Hnc Hn. pose proof (occ_binding _ _ _ _ Hb Hnc) as Hin.
  apply (grel_bound p need pi Ga G (mkcb x c t) Hg Hin Hn).
Qed.
Lemma shrink_int_prd : forall cd x, shrink_binding cd (mkcb x CPrd CI64) = mkb x Ext I64.
Proof. reflexivity. Qed.
Lemma shrink_int_cns : forall cd x, shrink_binding cd (mkcb x CCns CI64) = mkb x Cns (Decl cont_name).
Proof. reflexivity. Qed.
End TyBase.
