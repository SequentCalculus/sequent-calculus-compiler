(* C06 / C01 without the two hypotheses that were only CHECKED on the emitted code (`asm_wf cs = None`,
   `code_small cs = true`): both are theorems now (Proof/X86WfAll.v) under boolean guards on the PROGRAM handed to
   the code generator:
     labels_guard     the label texts are unambiguous (Sem/LabelGuard.v; known finding label-collision-name-digits
                      outside it)
     imm_guard        literals are 64-bit values, a Substitute lists at most 2^31 pairs, a type declares at most
                      2^28 xtors (Sem/WfGuard.v: every immediate operand is in the range of its instruction form)
     size_guard       cg_bound_defs <= 2^40 (the code is smaller than 2^62 - 2^30 bytes)
   `calls_guard` (every call goes to a definition of the program) follows from the linear discipline
   ([lin_check_calls_guard]). *)
From Coq Require Import List ZArith NArith String Ascii Bool Lia.
From SCC Require Import Base.Sexp Lang.AxSyn Lang.FunSyn Lang.CoreSyn Sem.AxSem Sem.CoreSem Sem.FunSem Sem.X86Sem Sem.X86Wf Sem.FsCheck Sem.FsFrag2
     Model.Backend Model.Fun2Core Model.Fun2CoreGuard Model.Focus Model.FocusCheck Model.FocusGuard Model.Shrink Model.Linearize Model.LinCheck
     Model.X86 Model.Runtime Model.PipelineGuards
     Proof.RuntimeProof Proof.LinSim Proof.Compose Proof.ComposeFocus Proof.ComposeF2C Proof.Compose2
     Proof.Fun2CoreRel Proof.Fun2CoreProg Proof.FocusRun Proof.FocusFrag Proof.UqAeq Proof.UqCompose Proof.ShrinkSem Proof.ShrinkSimClosed
     Proof.X86SimAddr Proof.X86SimProg Proof.X86SimProgC Proof.X86HSimTop Proof.X86HSimCor Proof.X86HSimExample Proof.Fun2CoreExamples
     Proof.ComposeFull.
From SCC Require Import Sem.LabelGuard Sem.WfGuard Proof.LinBasics Proof.LinearizeProof Proof.LabelGen Proof.SimFrag Proof.X86HAnn Proof.X86HAnnLin Proof.X86WfAll Proof.AxHeapExample.
From SCC Require Proof.AxHeapTyping.
Import ListNotations.
Open Scope Z_scope.

(* the linear discipline implies calls_guard *)
Lemma lookup_label_dnames p l ps : lookup_label (sigs_of p) l = Some ps -> mem_strb (show_ident l) (dnames (pdefs p)) = true.
Proof.
  unfold lookup_label, sigs_of. cbn [sg_labels].
  destruct (find (fun q => ident_eqb (fst q) l) (map (fun d => (dname d, dctx d)) (pdefs p))) as [q|] eqn:F; [|discriminate].
  intros _. apply find_some in F as [I E]. apply in_map_iff in I as (d & <- & Hd). cbn [fst] in E. apply ident_eqb_eq in E. subst l.
  unfold mem_strb. apply existsb_exists. exists (show_ident (dname d)). split; [|apply String.eqb_refl].
  unfold dnames. apply in_map_iff. exists d. auto.
Qed.
Ltac sp H a b := apply andb_true_iff in H as [a b].
Lemma lin_check_calls p : forall s c, lin_check (sigs_of p) c s = true ->
  calls_ok (fun l => mem_strb (show_ident l) (dnames (pdefs p))) s = true.
Proof.
  unfold calls_ok.
  induction s using stmt_ind2; intros c LN.
  - cbn [lin_check] in LN. cbn [stmt_check]. sp LN L0 L1. sp L1 L1 Ln. eauto.
  - cbn [lin_check] in LN. cbn [stmt_check]. sp LN L0 L1.
    destruct (lookup_label (sigs_of p) l) as [ps|] eqn:LL; [|discriminate]. eapply lookup_label_dnames; eauto.
  - cbn [lin_check] in LN. cbn [stmt_check]. sp LN L0 L1.
    destruct (split_lastn _ c) as [[c0 tl]|]; [|discriminate]. sp L1 L1 Ln. eauto.
  - rewrite lin_check_switch in LN. rewrite stmt_check_switch. cbn [andb]. sp LN L0 L1.
    destruct (split_lastn 1 c) as [[c0 [|b [|]]]|]; try discriminate. sp L1 L1 Lc.
    unfold lin_clauses_sw in Lc. rewrite forallb_forall in Lc. apply forallb_forall. intros cl Hcl.
    rewrite Forall_forall in H. exact (H cl Hcl _ (Lc cl Hcl)).
  - destruct env as [env|]; [|cbn [lin_check] in LN; sp LN L0 L1; discriminate].
    rewrite lin_check_create in LN. rewrite stmt_check_create. cbn [andb]. sp LN L0 L1.
    destruct (split_lastn _ c) as [[c0 tl]|]; [|discriminate]. sp L1 L1 Ln. sp L1 L1 Lc.
    apply andb_true_iff. split; [|eauto].
    unfold lin_clauses_cr in Lc. rewrite forallb_forall in Lc. apply forallb_forall. intros cl Hcl.
    rewrite Forall_forall in H. exact (H cl Hcl _ (Lc cl Hcl)).
  - reflexivity.
  - cbn [lin_check] in LN. cbn [stmt_check]. sp LN L0 Ln. eauto.
  - cbn [lin_check] in LN. cbn [stmt_check]. sp LN L0 L1. sp L1 L1 Ln. eauto.
  - cbn [lin_check] in LN. cbn [stmt_check]. sp LN L0 L1. sp L1 L1 Ln. eauto.
  - cbn [lin_check] in LN. cbn [stmt_check]. sp LN L0 L1. sp L1 L1 Lel. sp L1 L1 Lth.
    apply andb_true_iff. split; eauto.
  - reflexivity.
Qed.
Theorem lin_check_calls_guard p : lin_check_prog p = true -> calls_guard p = true.
Proof.
  unfold lin_check_prog, calls_guard, prog_calls_ok. rewrite !forallb_forall. intros H d Hd.
  exact (lin_check_calls p _ _ (H d Hd)).
Qed.

(* C06: the x86-64 code generator, all statement forms, no check on the output left *)
Theorem x86_codegen_simulates_wf p lc cs n lc' args fuel o :
  lin_check_prog p = true -> ann_check_prog p = true -> AxHeapTyping.entry_ext p = true ->
  plain_names p = true -> plain_types p = true ->
  labels_guard p = true -> imm_guard p = true -> size_guard p = true ->
  x86_compile p lc = Backend.Ok (cs, n, lc') ->
  List.length args = n -> heap_fits p args ->
  run_linear fuel p args = o -> snd o <> OOutOfFuel ->
  exists outer inner, fst (run_x86 outer inner cs args) = o.
Proof.
  intros LIN ANN EE PN PT LG IG SG XC.
  apply (x86_codegen_simulates p lc cs n lc' args fuel o LIN ANN EE PN PT XC).
  - exact (x86_compile_asm_wf p lc cs n lc' LG (lin_check_calls_guard p LIN) LIN PN PT IG XC).
  - exact (x86_compile_code_small p lc cs n lc' LIN SG XC).
Qed.

Corollary x86_codegen_correct_linearized_wf a lc cs n lc' args fuel o :
  prog_ok a = true ->
  AxHeapTyping.entry_ext (linearize a) = true -> plain_names (linearize a) = true -> plain_types (linearize a) = true ->
  labels_guard (linearize a) = true -> imm_guard (linearize a) = true -> size_guard (linearize a) = true ->
  x86_compile (linearize a) lc = Backend.Ok (cs, n, lc') ->
  heap_fits (linearize a) args ->
  run_linear fuel (linearize a) args = o -> defined o = true ->
  exists outer inner, fst (run_x86 outer inner cs args) = o.
Proof.
  intros OK EE PN PT LG IG SG XC. pose proof (linearize_exact a OK) as LIN.
  apply (x86_codegen_correct_linearized a lc cs n lc' args fuel o OK EE PN PT XC).
  - exact (x86_compile_asm_wf _ lc cs n lc' LG (lin_check_calls_guard _ LIN) LIN PN PT IG XC).
  - exact (x86_compile_code_small _ lc cs n lc' LIN SG XC).
Qed.

(* C01: every link proved, every guard a boolean on a stage output (but heap_fits) *)
Theorem compile_correct_full_wf :
  forall (p : fcprog) (c : cprog) (f : fsprog) (a : prog) (cs : list xcode) (nargs : nat) (lc lc' : N)
         (args : list Z) (n : nat) (o : obs),
    NoDup (map fdname (fcpdefs p)) -> prog_guard p = true ->
    compile_prog p = Fun2Core.Ok c ->
    pre_check c = true -> focus_wf c = true -> cs_prog c = true -> static_ok c = true ->
    focus_prog c = Backend.Ok f ->
    frag2_prog f = true -> decls_ok f = true -> wt_fs f = true -> unique_binders f = true -> ids_bounded f = true ->
    shrink_prog f = SOk a ->
    prog_ok a = true ->
    x86_compile (linearize a) lc = Backend.Ok (cs, nargs, lc') ->
    AxHeapTyping.entry_ext (linearize a) = true -> plain_names (linearize a) = true -> plain_types (linearize a) = true ->
    labels_guard (linearize a) = true -> imm_guard (linearize a) = true -> size_guard (linearize a) = true ->
    heap_fits (linearize a) args ->
    run_fun n p args = o -> out_ok o ->
    (exists outer inner, fst (run_x86 outer inner cs args) = o) /\
    (Forall (fun pz => in_i64 (snd pz)) (fst o) ->
     bytes_of_string (render_prints (fst o)) = flat_map runtime_bytes (fst o)).
Proof.
  intros p c f a cs nargs lc lc' args n o Hnd Hgd Hc Hpre Hwf Hcs ST Hf F1 F2 F3 F4 F5 Hs Hok Hx EE PN PT LG IG SG.
  pose proof (linearize_exact a Hok) as LIN.
  apply (compile_correct_full p c f a cs nargs lc lc' args n o Hnd Hgd Hc Hpre Hwf Hcs ST Hf F1 F2 F3 F4 F5 Hs Hok Hx EE PN PT).
  - exact (x86_compile_asm_wf _ lc cs nargs lc' LG (lin_check_calls_guard _ LIN) LIN PN PT IG Hx).
  - exact (x86_compile_code_small _ lc cs nargs lc' LIN SG Hx).
Qed.

(* the guards of the x86-64 link as one executable list: no check on the emitted code is left *)
Definition x86_link_guards_wf (p : fcprog) (args : list Z) (fuel : nat) : list bool :=
  match pipeline_stages p with
  | Some (_, _, a) =>
      let l := linearize a in
      [AxHeapTyping.entry_ext l; plain_names l; plain_types l; labels_guard l; imm_guard l; size_guard l;
       match x86_compile l 0 with Backend.Ok _ => true | Backend.Err _ => false end; fits_run fuel l args]
  | None => [false]
  end.
Definition all_guards_wf (p : fcprog) (args : list Z) (fuel : nat) : bool :=
  forallb (fun b => b) (pipeline_guards p) && forallb (fun b => b) (x86_link_guards_wf p args fuel).

Lemma all_guards_wf_examples :
  all_guards_wf ex_calls [5] 5000 = true /\ all_guards_wf ex_shared [5] 5000 = true /\ all_guards_wf ex_data [6] 5000 = true /\
  all_guards_wf ex_labels [5] 5000 = true /\ all_guards_wf ex_codata [4] 5000 = true.
Proof. vm_compute. repeat split; reflexivity. Qed.
(* ... and they also satisfy calls_guard and the linear discipline, the remaining hypotheses of x86_compile_asm_wf *)
Definition lin_of (p : fcprog) : prog :=
  match pipeline_stages p with Some (_, _, a) => linearize a | None => mkp [] [] 0%N end.
Lemma wf_guard_examples :
  wf_guard_x86 (lin_of ex_calls) = true /\ wf_guard_x86 (lin_of ex_shared) = true /\ wf_guard_x86 (lin_of ex_data) = true /\
  wf_guard_x86 (lin_of ex_labels) = true /\ wf_guard_x86 (lin_of ex_codata) = true /\
  size_guard (lin_of ex_calls) = true /\ size_guard (lin_of ex_shared) = true /\ size_guard (lin_of ex_data) = true /\
  size_guard (lin_of ex_labels) = true /\ size_guard (lin_of ex_codata) = true.
Proof. vm_compute. repeat split; reflexivity. Qed.

Theorem compile_correct_checked_wf :
  forall (p : fcprog) (args : list Z) (fuel n : nat) (o : obs),
    NoDup (map fdname (fcpdefs p)) -> all_guards_wf p args fuel = true ->
    run_fun n p args = o -> out_ok o ->
    exists c f a cs nargs lc',
      pipeline_stages p = Some (c, f, a) /\ x86_compile (linearize a) 0 = Backend.Ok (cs, nargs, lc') /\
      asm_wf cs = None /\ code_small cs = true /\
      exists outer inner, fst (run_x86 outer inner cs args) = o.
Proof.
  intros p args fuel n o ND AG RUN OK. unfold all_guards_wf in AG. apply andb_true_iff in AG as [PG XG].
  unfold pipeline_guards in PG. unfold x86_link_guards_wf in XG.
  destruct (pipeline_stages p) as [[[c f] a]|] eqn:PS; [|discriminate].
  cbn [forallb] in PG, XG. repeat (apply andb_true_iff in PG as [? PG]). repeat (apply andb_true_iff in XG as [? XG]).
  destruct (x86_compile (linearize a) 0) as [[[cs nargs] lc']|] eqn:XC; [|discriminate].
  exists c, f, a, cs, nargs, lc'. split; [reflexivity|]. split; [exact XC|].
  unfold pipeline_stages in PS.
  destruct (compile_prog p) as [c0|] eqn:CP; [|discriminate].
  destruct (focus_prog c0) as [f0|] eqn:FP; [|discriminate].
  destruct (shrink_prog f0) as [a0|] eqn:SP; try discriminate.
  inversion PS; subst c0 f0 a0; clear PS.
  assert (LIN : lin_check_prog (linearize a) = true) by (apply linearize_exact; assumption).
  split; [eapply x86_compile_asm_wf; eauto using lin_check_calls_guard|].
  split; [eapply x86_compile_code_small; eauto|].
  eapply (compile_correct_full_wf p c f a cs nargs 0%N lc' args n o); eauto.
  eapply fits_run_sound; eauto.
Qed.

(* instance: the theorem applied to the list program *)
Lemma compile_correct_checked_wf_instance :
  exists c f a cs nargs lc',
    pipeline_stages ex_data = Some (c, f, a) /\ x86_compile (linearize a) 0 = Backend.Ok (cs, nargs, lc') /\
    asm_wf cs = None /\ code_small cs = true /\
    exists outer inner, fst (run_x86 outer inner cs [6]) = ([(true, 21); (true, 36)], OExit 0).
Proof.
  assert (R : run_fun 2000 ex_data [6] = ([(true, 21); (true, 36)], OExit 0)) by (vm_compute; reflexivity).
  eapply (compile_correct_checked_wf ex_data [6] 5000 2000); [| |exact R|exists 0; reflexivity].
  - apply nodup_b_sound. vm_compute. reflexivity.
  - vm_compute. reflexivity.
Qed.

(* the linear discipline cannot be dropped from x86_compile_asm_wf *)
(* a multiplication whose TARGET is one of its operands (not linear: the bound variable is already in the context),
   the seventh variable of the context, hence in a spill slot: the selection function emits `imul [mem], reg`,
   which does not exist (the latent defect of mul_to_spill, Props/C14.v C14_x86_mul_to_spill_latent_refuted).
   Every other hypothesis holds.  The pipeline never produces such a program (linearize_exact). *)
Definition mul_alias_prog : prog :=
  let x (i : N) : ident := ("x"%string, i) in
  let e (i : N) := mkb (x i) Ext I64 in
  mkp [mkd ("main"%string, 0%N) [] (Call ("f"%string, 0%N) []);
       mkd ("f"%string, 0%N) [e 0%N; e 1%N; e 2%N; e 3%N; e 4%N; e 5%N; e 6%N]
         (Op (x 6%N) Prod (x 6%N) (x 6%N) (Exit (x 6%N)))] [] 6%N.
Lemma asm_wf_lin_check_needed :
  labels_guard mul_alias_prog = true /\ calls_guard mul_alias_prog = true /\ lin_check_prog mul_alias_prog = false /\
  plain_names mul_alias_prog = true /\ plain_types mul_alias_prog = true /\ imm_guard mul_alias_prog = true /\
  exists cs n lc', x86_compile mul_alias_prog 0 = Backend.Ok (cs, n, lc') /\
    asm_wf cs = Some "operand not encodable or no such instruction form"%string /\
    In (IMULMR STACK (stack_offset 2) TEMP) cs.
Proof.
  repeat (split; [vm_compute; reflexivity|]).
  eexists _, _, _. split; [vm_compute; reflexivity|]. split; [vm_compute; reflexivity|].
  vm_compute. repeat (first [left; reflexivity|right]).
Qed.

(* the heap example of Proof/X86HSimExample.v passes the new guards *)
Lemma hx_lin_guards :
  labels_guard hx_lin = true /\ imm_guard hx_lin = true /\ size_guard hx_lin = true /\ calls_guard hx_lin = true.
Proof. vm_compute. repeat split; reflexivity. Qed.
