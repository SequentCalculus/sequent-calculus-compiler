(* C06, forward simulation for HEAP statements: Let and Create.
   `hclo_ok` is what the data word of a closure points to: the address of its label (plus the table offset)
   leads, the state unchanged, to the code `x_load cenv cx ++ body` of the clause, generated for the clause
   context followed by the captured context, and linearly checked there. *)
From Coq Require Import List ZArith NArith String Bool Lia FMapPositive Permutation.
From SCC Require Import Proof.X86Mem Proof.X86MemFrame Proof.X86StackFrame.
From SCC Require Import Base.Sexp Lang.AxSyn Sem.AxSem Sem.AxHeap Model.ParMoves Model.Backend Model.X86 Sem.X86Sem Sem.X86Wf
     Model.Linearize Model.LinCheck Generated.Constants Proof.LinBasics Proof.LinTyping Proof.X86State Proof.X86Sel Proof.X86Exec Proof.X86ParMoves
     Proof.SubstGraph Proof.X86Subst Proof.X86SimRel Proof.X86SimStmt Proof.X86SimAddr Proof.X86SimClo
     Proof.X86HeapDefs Proof.X86HeapCongr Proof.X86HBridge Proof.X86HFrame
     Proof.X86HSimRel Proof.X86HSimStmt Proof.X86HConv Proof.X86HSimStore Proof.X86HSimLoad Proof.X86HLayout Proof.X86HSimHeapA Proof.X86HAnn.
From SCC Require Model.Heap Proof.HeapMore Proof.HeapTrace Proof.HeapRep.
Import ListNotations.
Open Scope Z_scope.
Open Scope list_scope.

Lemma same_kinds_intro (fs : list value) (sg : ctx) : List.length fs = List.length sg ->
  (forall i f b, nth_error fs i = Some f -> nth_error sg i = Some b -> chi_of f = bchi b /\ ty_of f = bty b) ->
  same_kinds fs sg.
Proof.
  revert sg. induction fs as [|f fs IH]; intros [|b sg] L H; cbn in L; try discriminate; constructor.
  - apply (H O); reflexivity.
  - apply IH; [lia|]. intros i f' b' Hf Hb. apply (H (S i)); assumption.
Qed.
Lemma same_kt_nth (a b : ctx) i x : same_kt a b -> nth_error a i = Some x ->
  exists y, nth_error b i = Some y /\ bchi x = bchi y /\ bty x = bty y.
Proof.
  intros H. revert i x. induction H as [|x0 y0 a b [K T] _ IH]; intros [|i] x Hx; cbn [nth_error] in *; try discriminate.
  - inversion Hx; subst. eauto.
  - eauto.
Qed.
Lemma ty_name_Decl t tn : ty_name t = Some tn -> t = Decl tn.
Proof. destruct t; cbn; intros H; [discriminate|congruence]. Qed.

(* the captured environment of a new closure stands for exactly the context it was taken from *)
Lemma ctx_of_env_bind (env : ctx) (vs : list value) ce :
  bind (vars env) vs = Some ce ->
  (forall i b v, nth_error env i = Some b -> nth_error vs i = Some v -> chi_of v = bchi b /\ ty_of v = bty b) ->
  ctx_of_env ce = env /\ map snd ce = vs.
Proof.
  revert vs ce. induction env as [|b env IH]; intros [|v vs] ce H K; cbn [vars map bind] in H; try discriminate.
  - inversion H; subst. split; reflexivity.
  - destruct (bind (map bvar env) vs) as [cr|] eqn:B; [|discriminate]. inversion H; subst ce.
    destruct (IH vs cr B) as [E1 E2]; [intros i b' v' Hb Hv; apply (K (S i)); assumption|].
    destruct (K O b v eq_refl eq_refl) as [K1 K2].
    split; [|cbn; now rewrite E2]. unfold ctx_of_env in *. cbn [map fst snd]. rewrite E1. f_equal.
    destruct b as [bv bc bt]. cbn in *. now rewrite K1, K2.
Qed.

Lemma firstn_app_exact {X} (a b : list X) n : List.length b = n -> firstn (List.length (a ++ b) - n) (a ++ b) = a.
Proof. intros L. rewrite app_length, L. replace (List.length a + n - n)%nat with (List.length a) by lia. rewrite firstn_app, firstn_all, Nat.sub_diag. cbn. now rewrite app_nil_r. Qed.

Section HB.
Variable im : image.
Variable p : prog.
Hypothesis IMG : img_ok im.
Hypothesis BACK : back_ok im.
Hypothesis SMALL : forall pc a, PM.find pc (addr_of im) = Some a -> a < 4611686018427387904.

Definition hclo_ok (a : Z) (tn : ident) (cls : list clause) (cenv : ctx) : Prop :=
  cls_ok (sigs_of p) (Decl tn) cls = true /\ 0 <= a < 4611686018427387904 /\
  forall k c, nth_error cls k = Some c ->
    exists i pcc lcl cl lcb cb lcb',
      PM.find (key (a + (if Nat.leb (List.length cls) 1 then 0 else jump_length (N.of_nat k)))) (index_at im) = Some i /\
      a + (if Nat.leb (List.length cls) 1 then 0 else jump_length (N.of_nat k)) < 4611686018427387904 /\
      (forall s, exec_to im i s pcc s) /\
      x_load cenv (cl_ctx c) lcl = Ok (cl, lcb) /\ xcs (ptypes p) (cl_body c) (cl_ctx c ++ cenv) lcb = Ok (cb, lcb') /\
      code_at im pcc (cl ++ cb) /\ labels_at_nh im pcc (cl ++ cb) /\
      lin_check (sigs_of p) (cl_ctx c ++ cenv) (cl_body c) = true /\ ann_check (cl_ctx c ++ cenv) (cl_body c) = true.

Local Notation hrel := (hrel (ptypes p) hclo_ok).
Local Notation hvrep := (hvrep (ptypes p) hclo_ok).
Local Notation xrep := (xrep (ptypes p) hclo_ok).
Local Notation xflds := (xflds (ptypes p) hclo_ok).

(* the kinds of the stored values are those of the bindings of the context suffix *)
Lemma suffix_kinds rest args he0 fsE hs s sp i b en :
  hrel (rest ++ args) (he0 ++ fsE) hs s sp -> List.length he0 = List.length rest ->
  nth_error args i = Some b -> nth_error fsE i = Some en -> chi_of (h_val en) = bchi b /\ ty_of (h_val en) = bty b /\ idn (h_id en) = idn (bvar b).
Proof.
  intros R L Hb He. destruct en as [[x v] q].
  destruct (hrel_vals_app (ptypes p) hclo_ok rest args he0 fsE hs s sp i x v q R L He) as (b' & Hb' & V).
  assert (b' = b) by congruence. subst b'. cbn [h_val h_id fst snd].
  assert (EI : idn x = idn (bvar b)).
  { destruct (henv_ctx_nth (rest ++ args) (he0 ++ fsE) (List.length rest + i) x v q (hr_ids R)) as (b0 & Hb0 & E0).
    - rewrite nth_error_app2 by lia. replace (List.length rest + i - List.length he0)%nat with i by lia. exact He.
    - rewrite nth_error_app2 in Hb0 by lia. rewrite Nat.add_comm, Nat.add_sub in Hb0. congruence. }
  destruct V as [b z q t A B T Lg|b v q a t1 t2 A K1 K2 T1 T2 L1 L2 X]; cbn; auto.
Qed.

Theorem hsim_let c he hs s sp v t tag args next lc code lc' pc he0 fs tn hl fl cl :
  hrel c he hs s sp ->
  lin_check (sigs_of p) c (Let v t tag args next) = true ->
  xcs (ptypes p) (Let v t tag args next) c lc = Ok (code, lc') -> code_at im pc code -> labels_at_nh im pc code ->
  ty_name t = Some tn -> AxSem.split_last (List.length args) he = Some (he0, fs) ->
  InvA HEAP_BASE hs (roots he) hl fl cl -> P03 hs ->
  (forall en, In en he -> chi_of (h_val en) = Ext -> h_ptr en = 0) ->
  let res := Heap.alloc_object (map store_ptr fs) hs in
  Heap.frontier (snd res) + 64 <= LIMIT -> Heap.heap (snd res) <> 0 -> Heap.free (snd res) <> 0 ->
  let c0 := firstn (List.length c - List.length args) c in
  exists c12 c3 lc1 s',
    code = c12 ++ c3 /\ xcs (ptypes p) next (c0 ++ [mkb v Prd t]) lc1 = Ok (c3, lc') /\
    lin_check (sigs_of p) (c0 ++ [mkb v Prd t]) next = true /\
    exec_to im pc s (padd pc (List.length c12)) s' /\
    hrel (c0 ++ [mkb v Prd t]) (he0 ++ [(v, VObj tn tag (map h_val fs), fst res)]) (snd res) s' sp /\ hframe_eq s s' sp.
Proof.
  intros R LC CS CA LA TN SL IA K03 EX res HF HH0 HF0 c0'.
  destruct (cs_let _ _ _ _ _ _ _ _ _ _ CS) as (d & k & rest & arguments & c1 & lc1 & tmpv & c3 & LT & XP & BS & XS & TV & NX & ->).
  apply bsplit_last_app in BS as [-> LA1]. apply asplit_last_app in SL as [-> LF].
  apply ty_name_Decl in TN. subst t.
  pose proof (hrel_length R) as LEN. rewrite !app_length in LEN.
  assert (L0 : List.length he0 = List.length rest) by lia.
  cbn [lin_check] in LC. apply andb_true_iff in LC as [_ LC].
  destruct (split_lastn (List.length args) (rest ++ arguments)) as [[c0 tl]|] eqn:SPL; [|discriminate].
  apply split_lastn_Some in SPL as [SPE SPLn].
  apply app_inv_len in SPE as [<- <-]; [|apply (f_equal (@List.length binding)) in SPE; rewrite !app_length in SPE; lia].
  apply andb_true_iff in LC as [LC LCn]. apply andb_true_iff in LC as [CM AO].
  apply ctx_match_Prop in CM as [IDS SKT].
  unfold args_ok in AO. destruct (lookup_xtor (sigs_of p) (Decl tn) tag) as [sg|] eqn:LX; [|discriminate].
  apply sig_match_iff in AO.
  pose proof (lin_nodup _ _ _ LCn) as NDn.
  rewrite app_assoc in CA, LA. apply code_at_app in CA as [CA12 CA3]. apply labels_at_nh_app in LA as [LA12 LA3].
  apply code_at_app in CA12 as [CA1 CA2]. apply labels_at_nh_app in LA12 as [LA1' _].
  assert (T2 : xtpos Snd (List.length rest) = Ok tmpv).
  { rewrite <- TV. symmetry. change (idn v) with (idn (bvar (mkb v Prd (Decl tn)))). apply vt_tpos; auto. apply nth_error_mid. }
  destruct (xtpos_ok _ _ _ T2) as (L2 & N2 & _).
  (* the constructor and the kinds of its fields *)
  assert (TW : tag_word (ptypes p) tn tag (map h_val fs) (jump_length k)).
  { unfold lookup_type in LT. destruct (find (fun d0 => ident_eqb (tname d0) tn) (ptypes p)) as [d0|] eqn:FD; [|discriminate].
    inversion LT; subst d0. unfold lookup_xtor, type_xtors in LX. cbn [sigs_of sg_types] in LX. rewrite FD in LX.
    destruct (find (fun x => ident_eqb (xname x) tag) (txtors d)) as [x|] eqn:FX; [|discriminate]. inversion LX; subst sg.
    exists d, k, x. repeat split; auto.
    apply same_kinds_intro.
    - rewrite map_length. apply same_kt_length in AO. lia.
    - intros i f b Hf Hb. rewrite nth_error_map in Hf. destruct (nth_error fs i) as [en|] eqn:He; [|discriminate].
      cbn in Hf. inversion Hf; subst f.
      assert (Li : (i < List.length arguments)%nat) by (apply nth_error_Some_lt in He; lia).
      destruct (nth_error arguments i) as [ba|] eqn:Ha; [|apply nth_error_None in Ha; lia].
      destruct (suffix_kinds rest arguments he0 fs hs s sp i ba en R L0 Ha He) as (K1 & K2 & _).
      destruct (same_kt_nth _ _ i ba SKT Ha) as (b1 & Hb1 & K3 & K4).
      destruct (same_kt_nth _ _ i b1 AO Hb1) as (b2 & Hb2 & K5 & K6).
      assert (b2 = b) by congruence. subst b2. split; congruence. }
  assert (EC0 : c0' = rest) by (unfold c0'; apply firstn_app_exact; exact LA1). rewrite EC0. clear EC0 c0'.
  destruct (hsim_store_push im (ptypes p) hclo_ok rest arguments he0 fs hs s sp lc c1 lc1 pc hl fl cl v (mkb v Prd (Decl tn))
              (VObj tn tag (map h_val fs)) (jump_length k) tmpv (x_load_immediate tmpv (jump_length k)) R L0 IA K03
              ltac:(intros en Hen; apply EX; apply in_app_iff; now right) XS CA1 LA1' CA2 HF HH0 HF0 NDn eq_refl
              ltac:(discriminate) eq_refl eq_refl T2 (local_load_immediate _ _ (loc_ok_lok _ L2))
              (fun s1 F1 => x86_load_immediate_ok im s1 sp tmpv (jump_length k) F1 L2 N2)
              (fun w XF => xr_obj _ _ w tn tag _ _ _ TW XF)) as (s2 & X & R2 & FE).
  exists (c1 ++ x_load_immediate tmpv (jump_length k)), c3, lc1, s2.
  split; [now rewrite app_assoc|]. split; [exact NX|]. split; [exact LCn|]. split; [exact X|]. split; [exact R2|exact FE].
Qed.
Theorem hsim_create c he hs s sp v t env cls next lc code lc' pc he0 cap tn ce hl fl cl :
  hrel c he hs s sp ->
  lin_check (sigs_of p) c (Create v t (Some env) cls next) = true ->
  skipn (List.length c - List.length env) c = env -> ann_clauses_cr env cls = true ->
  xcs (ptypes p) (Create v t (Some env) cls next) c lc = Ok (code, lc') -> code_at im pc code -> labels_at_nh im pc code ->
  (forall lcx, is_hash_label (type_label t lcx) = false) ->
  ty_name t = Some tn -> AxSem.split_last (List.length env) he = Some (he0, cap) ->
  bind (vars env) (map h_val cap) = Some ce ->
  InvA HEAP_BASE hs (roots he) hl fl cl -> P03 hs ->
  (forall en, In en he -> chi_of (h_val en) = Ext -> h_ptr en = 0) ->
  let res := Heap.alloc_object (map store_ptr cap) hs in
  Heap.frontier (snd res) + 64 <= LIMIT -> Heap.heap (snd res) <> 0 -> Heap.free (snd res) <> 0 ->
  let c0 := firstn (List.length c - List.length env) c in
  exists c12 c3 lc2 lc3 rest' s',
    code = c12 ++ c3 ++ rest' /\ xcs (ptypes p) next (c0 ++ [mkb v Cns t]) lc2 = Ok (c3, lc3) /\
    lin_check (sigs_of p) (c0 ++ [mkb v Cns t]) next = true /\
    exec_to im pc s (padd pc (List.length c12)) s' /\
    hrel (c0 ++ [mkb v Cns t]) (he0 ++ [(v, VClo tn cls ce, fst res)]) (snd res) s' sp /\ hframe_eq s s' sp.
Proof.
  intros R LC ANN ANC CS CA LA NHL TN SL BD IA K03 EX res HF HH0 HF0 c0'.
  destruct (cs_create _ _ _ _ _ _ _ _ _ _ CS) as (rest & cenv & c1 & lc1 & tmpv & c3 & lc3 & c5 & BS & XS & TV & NX & CC & ->).
  apply bsplit_last_app in BS as [-> LA1]. apply asplit_last_app in SL as [-> LF].
  apply ty_name_Decl in TN. subst t.
  pose proof (hrel_length R) as LEN. rewrite !app_length in LEN.
  assert (L0 : List.length he0 = List.length rest) by lia.
  assert (ECE : cenv = env).
  { rewrite app_length, LA1 in ANN. replace (List.length rest + List.length env - List.length env)%nat with (List.length rest) in ANN by lia.
    rewrite skipn_app, skipn_all, Nat.sub_diag in ANN. exact ANN. }
  subst cenv.
  rewrite lin_check_create in LC. apply andb_true_iff in LC as [_ LC].
  destruct (split_lastn (List.length env) (rest ++ env)) as [[c0 tl]|] eqn:SPL; [|discriminate].
  apply split_lastn_Some in SPL as [SPE SPLn].
  apply app_inv_len in SPE as [<- <-]; [|apply (f_equal (@List.length binding)) in SPE; rewrite !app_length in SPE; lia].
  apply andb_true_iff in LC as [LC LCn]. apply andb_true_iff in LC as [LC LCc]. apply andb_true_iff in LC as [_ CO].
  pose proof (lin_nodup _ _ _ LCn) as NDn.
  set (fresh := type_label (Decl tn) (lc1 + 1)%N) in *.
  pose proof CA as CA0. pose proof LA as LA0.
  apply code_at_app in CA as [CA1 CA]. apply labels_at_nh_app in LA as [LA1' LA].
  apply code_at_app in CA as [CA2 CA]. apply labels_at_nh_app in LA as [_ LA].
  apply code_at_app in CA as [CA3 CA]. apply labels_at_nh_app in LA as [LA3 LA].
  set (P := c1 ++ x_load_label tmpv fresh ++ c3).
  set (pcl := padd pc (List.length P)).
  assert (CAL : code_at im pcl (([LAB fresh] ++ table_or_nil cls fresh) ++ c5)).
  { unfold pcl, P. rewrite !app_length, !padd_add. exact CA. }
  assert (LAL : labels_at_nh im pcl (([LAB fresh] ++ table_or_nil cls fresh) ++ c5)).
  { unfold pcl, P. rewrite !app_length, !padd_add. exact LA. }
  assert (CL0 : PM.find pcl (code im) = Some (LAB fresh)).
  { rewrite <- app_assoc in CAL. cbn [app] in CAL. apply code_at_cons in CAL as [X _]. exact X. }
  destruct (io_addr im IMG pcl _ CL0) as (a & AL & GE).
  assert (FL : find_label (labels im) fresh = Some pcl).
  { rewrite <- app_assoc in LAL. cbn [app] in LAL. rewrite (LAL O fresh eq_refl (NHL _)). reflexivity. }
  pose proof (label_addr_at im fresh pcl a FL AL) as LAD.
  rewrite clauses_code_gclauses in CC.
  assert (KIN : forall i b w, nth_error env i = Some b -> nth_error (map h_val cap) i = Some w -> chi_of w = bchi b /\ ty_of w = bty b).
  { intros i b w Hb Hw. rewrite nth_error_map in Hw. destruct (nth_error cap i) as [en|] eqn:He; [|discriminate].
    cbn in Hw. inversion Hw; subst w. destruct (suffix_kinds rest env he0 cap hs s sp i b en R L0 Hb He) as (K1 & K2 & _). auto. }
  destruct (ctx_of_env_bind env (map h_val cap) ce BD KIN) as [ECTX ESND].
  assert (CLO : hclo_ok a tn cls (ctx_of_env ce)).
  { rewrite ECTX. split; [exact CO|]. split; [split; [unfold CODE_BASE in GE; lia|exact (SMALL _ _ AL)]|].
    intros k cl0 Hk.
    destruct (dispatch_layout im IMG BACK (ptypes p) (fun cx lc0 => x_load env cx lc0) (fun cx => cx ++ env) pcl fresh cls c5 lc3 lc' a
                CAL LAL (NHL _) CC AL k cl0 Hk) as (i & pcc & lcl & cl1 & lcb & cb & lcb' & IX & (pca & PA) & ARR & _ & LD & BD' & CAb & LAb).
    exists i, pcc, lcl, cl1, lcb, cb, lcb'. split; [exact IX|]. split; [exact (SMALL _ _ PA)|]. split; [exact ARR|].
    split; [exact LD|]. split; [exact BD'|]. split; [exact CAb|]. split; [exact LAb|].
    split.
    - unfold lin_clauses_cr in LCc. rewrite forallb_forall in LCc. apply LCc. eapply nth_error_In; eauto.
    - unfold ann_clauses_cr in ANC. rewrite forallb_forall in ANC. apply ANC. eapply nth_error_In; eauto. }
  assert (T2 : xtpos Snd (List.length rest) = Ok tmpv).
  { rewrite <- TV. symmetry. change (idn v) with (idn (bvar (mkb v Cns (Decl tn)))). apply vt_tpos; auto. apply nth_error_mid. }
  destruct (xtpos_ok _ _ _ T2) as (L2 & N2 & _).
  assert (EC0 : c0' = rest) by (unfold c0'; apply firstn_app_exact; exact LA1). rewrite EC0. clear EC0 c0'.
  destruct (hsim_store_push im (ptypes p) hclo_ok rest env he0 cap hs s sp lc c1 lc1 pc hl fl cl v (mkb v Cns (Decl tn))
              (VClo tn cls ce) a tmpv (x_load_label tmpv fresh) R L0 IA K03
              ltac:(intros en Hen; apply EX; apply in_app_iff; now right) XS CA1 LA1' CA2 HF HH0 HF0 NDn eq_refl
              ltac:(discriminate) eq_refl eq_refl T2 (local_load_label _ _ (loc_ok_lok _ L2))
              (fun s1 F1 => load_label_ok im s1 sp tmpv fresh a F1 L2 N2 LAD)
              (fun w XF => xr_clo _ _ w tn cls ce _ a CLO ltac:(rewrite ESND; exact XF))) as (s2 & X & R2 & FE).
  exists (c1 ++ x_load_label tmpv fresh), c3, (lc1 + 1)%N, lc3, (([LAB fresh] ++ table_or_nil cls fresh) ++ c5), s2.
  split; [now rewrite <- !app_assoc|]. split; [exact NX|]. split; [exact LCn|]. split; [exact X|]. split; [exact R2|exact FE].
Qed.
End HB.
