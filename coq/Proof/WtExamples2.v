(* Proof/WtExamples2.v (property C12): the hypotheses of the typing theorems of fun2core and focusing are satisfiable.
   The five multi-definition programs of Proof/Fun2CoreExamples.v (recursion, shared continuations, data with
   case, labels/goto with a consumer argument, codata with `new` and by-name values) satisfy the guard of
   C12_fun2core_preserves_typing_fragment2 and every boolean condition of C12_pipeline_wt; the conclusions are
   evaluated as well (vm_compute on the models of the passes). *)
From Coq Require Import List ZArith NArith String Bool.
From SCC Require Import Lang.FunSyn Lang.CoreSyn Sem.FsCheck Sem.CoreCheck Sem.FsFrag2
     Model.Fun2Core Model.Fun2CoreTyGuard Model.FocusCheck Model.FocusTyGuard Model.Backend Model.Focus
     Model.WtDefs Proof.Fun2CoreProof Proof.Fun2CoreExamples.
Import ListNotations.

(* guard and conclusion of the fun2core theorem *)
Definition f2c_ok (p : fcprog) : bool :=
  prog_tyguard p &&
  match compile_prog p with
  | Fun2Core.Ok c => wt_core c && pre_check c && xtor_tys_ok c && names_le c
  | Fun2Core.Err _ => false
  end.
(* hypotheses and conclusion of the focus theorem, and the stage-output conditions of the composition *)
Definition focus_ok (p : fcprog) : bool :=
  match compile_prog p with
  | Fun2Core.Ok c =>
      match focus_prog c with
      | Backend.Ok f => wt_fs f && unique_binders f && ids_bounded f && gub f && FsFrag2.names_ok f && FsFrag2.decls_ok f
      | Backend.Err _ => false
      end
  | Fun2Core.Err _ => false
  end.

Lemma f2c_examples_ok :
  f2c_ok ex_calls = true /\ f2c_ok ex_shared = true /\ f2c_ok ex_data = true /\ f2c_ok ex_labels = true /\ f2c_ok ex_codata = true.
Proof. do 4 (split; [vm_compute; reflexivity|]). vm_compute; reflexivity. Qed.
Lemma focus_examples_ok :
  focus_ok ex_calls = true /\ focus_ok ex_shared = true /\ focus_ok ex_data = true /\ focus_ok ex_labels = true /\ focus_ok ex_codata = true.
Proof. do 4 (split; [vm_compute; reflexivity|]). vm_compute; reflexivity. Qed.
(* lifted definitions exist in the examples (the key lemma is exercised): share_<f>_<n> *)
Lemma shared_example_lifts : (2 <= List.length (cpdefs (compiled_or_empty ex_shared)) - 2)%nat.
Proof. vm_compute. repeat constructor. Qed.
(* the guard is not implied by acceptance of the checker before fix 5b8c76f: the witness of the former finding
   main-non-integer-result is outside.  The witness of the former finding call-to-main (repaired in /repo by f929eb7; the
   guard has no call-of-main exclusion) is INSIDE, and the conclusion of the theorem is evaluated on it.  The two witnesses of the former finding capture-under-binder (repaired in /repo
   by d5d4151; the guard has no capture clause) are INSIDE, although the syntactic detector
   [shadowing_risk_prog] fires on them, and the conclusion of the theorem is evaluated on them too. *)
Lemma guard_on_witnesses :
  (prog_tyguard call_main_witness = true /\ calls_main_prog call_main_witness = true /\ f2c_ok call_main_witness = true) /\
  prog_tyguard main_nonint_witness = false /\
  (prog_tyguard capture_witness = true /\ shadowing_risk_prog capture_witness = true /\ f2c_ok capture_witness = true) /\
  (prog_tyguard WtDefs.capture_typing_witness = true /\ shadowing_risk_prog WtDefs.capture_typing_witness = true /\
   f2c_ok WtDefs.capture_typing_witness = true).
Proof. repeat apply conj; vm_compute; reflexivity. Qed.

(* Hypothesis H_focus_wt of the composition in Proof/WtPreserve.v is FALSE as stated.
   H_focus_wt asks wt_fs /\ unique_binders /\ ids_bounded of the focused program from wt_core and pre_check alone.
   (1) ids_bounded also bounds the id of every definition NAME, which neither wt_core nor pre_check look at:
       def main_5() { exit 0 } with max_id = 0.
   (2) wt_core does not ask for declared field types, focusing cuts every non-variable argument at the field type
       and wt_fs demands a declared type at every cut:  data T { K(x: U) }, U undeclared,
       def main() { < K(mu a. exit 0) | T | mu~ z. exit 0 > }.
   The proved theorem C12_focus_preserves_typing has the two boolean side conditions names_le and xtor_tys_ok. *)
From SCC Require Import Proof.WtPreserve.
Definition focus_wt_witness1 : cprog :=
  mkcp [mkcd ("main"%string, 5%N) [] (CExit (CLit 0%Z) CI64)] [] [] 0%N.
Definition tyT : cty := CDecl ("T"%string, 0%N).
Definition tyU : cty := CDecl ("U"%string, 0%N).
Definition focus_wt_witness2 : cprog :=
  mkcp [mkcd ("main"%string, 0%N) []
          (CCut (CXtor CPrd ("K"%string, 0%N) [CProducer (CMu CPrd ("a"%string, 0%N) (CExit (CLit 0%Z) CI64) tyU)] tyT) tyT
                (CMu CCns ("z"%string, 0%N) (CExit (CLit 0%Z) CI64) tyT))]
       [mkct CData ("T"%string, 0%N) [mkcx CData ("K"%string, 0%N) [mkcb ("x"%string, 0%N) CPrd tyU]]] [] 0%N.

Lemma focus_wt_witnesses :
  (wt_core focus_wt_witness1 = true /\ pre_check focus_wt_witness1 = true /\ names_le focus_wt_witness1 = false /\
   exists f, focus_prog focus_wt_witness1 = Backend.Ok f /\ wt_fs f = true /\ ids_bounded f = false) /\
  (wt_core focus_wt_witness2 = true /\ pre_check focus_wt_witness2 = true /\ xtor_tys_ok focus_wt_witness2 = false /\
   exists f, focus_prog focus_wt_witness2 = Backend.Ok f /\ wt_fs f = false).
Proof.
  split.
  - do 3 (split; [vm_compute; reflexivity|]). eexists. do 2 (split; [vm_compute; reflexivity|]). vm_compute; reflexivity.
  - do 3 (split; [vm_compute; reflexivity|]). eexists. do 1 (split; [vm_compute; reflexivity|]). vm_compute; reflexivity.
Qed.
Lemma H_focus_wt_refuted : ~ H_focus_wt.
Proof.
  intros H. destruct focus_wt_witnesses as [[W1 [P1 [_ [f [Ef [_ Hib]]]]]] _].
  destruct (H _ _ W1 P1 Ef) as [_ [_ Hib']]. congruence.
Qed.
