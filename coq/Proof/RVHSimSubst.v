(* C08, forward simulation for HEAP statements: Substitute with objects and closures that own heap
   blocks, for the one-block relation: the chain theorem (Proof/RVKSimSubst.v) read through Proof/RVHChain.v.
   A substitution only rearranges the entries of the environment, so small values stay small. *)
From Coq Require Import List ZArith NArith String Bool Lia FMapPositive.
From SCC Require Import Base.Sexp Lang.AxSyn Sem.AxSem Sem.AxHeap Model.ParMoves Model.Backend Model.RV Sem.RVSem
     Model.Linearize Model.LinCheck Proof.LinBasics
     Proof.RVSel Proof.SubstGraph Proof.SubstBackends Proof.RVSubst Proof.RVSimAddr Proof.BackendInv Proof.RVSimRel
     Proof.RVSimStmt Proof.RVHeapAbs Proof.RVHDefs Proof.RVHMem Proof.RVHBridge Proof.RVHSimRel Proof.RVHChain.
From SCC Require Model.Heap Proof.RVKSimSubst.
Import ListNotations.
Open Scope Z_scope.
Open Scope list_scope.

(* the operations of a substitution, along the object variables of the transposed map *)
Lemma subst_ops_order (P : binding -> Z) re : forall (tm : list (binding * list N)),
  (forall b tg, In (b, tg) tm -> tg = targets re b) ->
  flat_map (fun bt : binding * list N => AxHeap.rc_op (bchi (fst bt)) (P (fst bt)) (List.length (snd bt))) tm =
  flat_map (fun b => AxHeap.rc_op (bchi b) (P b) (count_targets re b)) (filter is_obj (map fst tm)).
Proof. exact (RVKSimSubst.subst_ops_order P re). Qed.

Theorem hsim_substitute im types CLO c he hs s re he' c1 lc lc1 c2 pc hl fl cl :
  hrel types CLO c he hs s -> NoDup (new_ids re) ->
  (forall q, In q re -> has c (snd q) (bchi (fst q)) (bty (fst q)) = true) ->
  hsubst he re = Some he' -> ctx_of he = c ->
  InvA HEAP_BASE hs (roots he) hl fl cl -> P03 hs -> Heap.frontier hs <= LIMIT ->
  code_weakening_contraction rv_backend (transpose re c) c lc = Ok (c1, lc1) ->
  code_exchange rv_backend (transpose re c) c (map fst re) = Ok c2 ->
  placed im pc (c1 ++ c2) ->
  exists s', star im pc s (padd pc (List.length (c1 ++ c2))) s' /\
             hrel types CLO (map fst re) he' (hrun (subst_ops he re) hs) s'.
Proof.
  intros R NDn KIND HS CTX IA K03 HFr WC CE PL. apply hrel_small_iff in R as [RK SM].
  destruct (RVKSimSubst.hsim_substitute im types CLO c he hs s re he' c1 lc lc1 c2 pc hl fl cl RK NDn KIND HS CTX IA K03 HFr WC CE PL)
    as (s' & X & R').
  exists s'. split; [exact X|]. apply hrel_small_iff. split; [exact R'|exact (small_env_hsubst _ _ _ HS SM)].
Qed.
