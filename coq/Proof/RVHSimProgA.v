(* C08, forward simulation for HEAP statements, one-block relation: what the program-level induction carries along
   (`hinv`: the invariant of the instrumented machine of C09 - InvA with the pointers of the environment as
   roots, chains owned, values represented, the environment typed -, the slot-count invariant P03, and the
   room in the heap region for everything the run will still allocate), and the initial relation.  `hinv` has the
   fields of Proof/RVKSimProgA.hinv, where its consequences are proved. *)
From Coq Require Import List ZArith NArith String Bool Lia FMapPositive.
From SCC Require Import Base.Sexp Lang.AxSyn Sem.AxSem Sem.AxHeap Model.Backend Model.RV Sem.RVSem
     Model.Linearize Model.LinCheck Proof.LinBasics Proof.LinTyping Proof.RVSel Proof.RVSimRel
     Proof.RVHeapAbs Proof.RVHDefs Proof.RVHMem Proof.RVHBridge Proof.RVHSimRel Proof.RVHChain.
From SCC Require Model.Heap Proof.AxHeapTyping Proof.AxHeapSafe Proof.RVKSimProgA Proof.RVKSimHeapC.
Import ListNotations.
Open Scope Z_scope.
Open Scope list_scope.

Section Inv.
Variable p : prog.
Hypothesis LP : lin_check_prog p = true.

Record hinv (he : henv) (hs : Heap.st) (s : stmt) : Prop := mk_hinv {
  hi_inv : AxHeapSafe.HInv HEAP_BASE he hs;
  hi_wt : AxHeapTyping.cfg_wt p he s;
  hi_p03 : P03 hs;
  hi_fit : forall tr c', hsteps p (mkhc he hs s) tr c' -> Heap.frontier (hc_heap c') + 64 <= LIMIT
}.

Lemma hinv_chain he hs s : hinv he hs s -> RVKSimProgA.hinv p he hs s.
Proof. intros [A B C D]. split; assumption. Qed.

Lemma hinv_fit1 he hs s ops he' s' pr :
  hinv he hs s -> hstep p he hs s = HStep ops he' s' pr -> Heap.frontier (hrun ops hs) + 64 <= LIMIT.
Proof. intros H HS. exact (RVKSimProgA.hinv_fit1 p LP he hs s ops he' s' pr (hinv_chain _ _ _ H) HS). Qed.
End Inv.

(* the entry state: integers are small *)
Lemma hentry_rel types CLO c0 args e0 :
  bind (vars c0) (map VInt args) = Some e0 -> NoDup (ids c0) -> SimFrag.ctx_int c0 = true -> (List.length args <= 14)%nat ->
  hrel types CLO c0 (attach e0 []) (Heap.init HEAP_BASE) (init_state args).
Proof.
  intros BD ND CI LE. apply hrel_small_iff. split; [exact (RVKSimProgA.hentry_rel types CLO c0 args e0 BD ND CI LE)|].
  apply small_env_attach. rewrite (proj1 (RVKSimHeapC.bind_snd _ _ _ BD)). apply Forall_forall.
  intros v Hv. apply in_map_iff in Hv as (z & <- & _). constructor.
Qed.
