(* C18: for n, m >= 8|ts| + level, p_X n ts = p_X m ts (levels: Term 4, Term3 3, Term2 2, everything else 1); the
   same for declarations; hence p_decls m n ts is parse's call for every m > |ts| and n >= fuel_of ts: the fuel theorem.
   (The factor 8 is that of [fuel_of] in Model/Parser.v; [shorter_fits] uses half of it.)  Holds [parse_with]. *)
From Coq Require Import List ZArith NArith String Ascii Bool Lia.
From SCC Require Import Base.Sexp Lang.SynUtil Lang.FunSyn Model.Printer Model.Parser Proof.ParseFuel.
Import ListNotations.
Open Scope string_scope.

Definition stable {X} (f : nat -> list token -> pr X) (c : nat) (ts : list token) : Prop :=
  forall n m, 8 * List.length ts + c <= n -> 8 * List.length ts + c <= m -> f n ts = f m ts.

Record all_stable (ts : list token) : Prop := {
  st_term : stable p_term 4 ts;
  st_term3 : stable p_term3 3 ts;
  st_block : stable p_block 1 ts;
  st_term2 : stable p_term2 2 ts;
  st_term1 : stable p_term1 1 ts;
  st_postfix : forall e b, stable (fun n => p_postfix n e b) 1 ts;
  st_clause : forall pol, stable (fun n => p_clause n pol) 1 ts }.

Ltac lenfact E :=
  lenfact_with p_term_shorter p_term3_shorter p_block_shorter p_term2_shorter p_term1_shorter p_postfix_nolonger
    p_clause_shorter E.

Section Step.
  Variable L : nat.
  Hypothesis IH : forall ts, List.length ts < L -> all_stable ts.

  (* the induction hypothesis at a list [r], under one premise for all seven functions *)
  Definition fits (r : list token) (n m : nat) : Prop :=
    List.length r < L /\ 8 * List.length r + 4 <= n /\ 8 * List.length r + 4 <= m.
  Lemma ih_term r n m : fits r n m -> p_term n r = p_term m r.
  Proof. intros (H & Hn & Hm). exact (st_term r (IH r H) n m Hn Hm). Qed.
  Lemma ih_term3 r n m : fits r n m -> p_term3 n r = p_term3 m r.
  Proof. intros (H & Hn & Hm). apply (st_term3 r (IH r H) n m); lia. Qed.
  Lemma ih_block r n m : fits r n m -> p_block n r = p_block m r.
  Proof. intros (H & Hn & Hm). apply (st_block r (IH r H) n m); lia. Qed.
  Lemma ih_term2 r n m : fits r n m -> p_term2 n r = p_term2 m r.
  Proof. intros (H & Hn & Hm). apply (st_term2 r (IH r H) n m); lia. Qed.
  Lemma ih_term1 r n m : fits r n m -> p_term1 n r = p_term1 m r.
  Proof. intros (H & Hn & Hm). apply (st_term1 r (IH r H) n m); lia. Qed.
  Lemma ih_postfix e b r n m : fits r n m -> p_postfix n e b r = p_postfix m e b r.
  Proof. intros (H & Hn & Hm). apply (st_postfix r (IH r H) e b n m); lia. Qed.
  Lemma ih_clause pol r n m : fits r n m -> p_clause n pol r = p_clause m pol r.
  Proof. intros (H & Hn & Hm). apply (st_clause r (IH r H) pol n m); lia. Qed.
  (* every list shorter than [ts] fits the fuel left after one step on [ts] *)
  Lemma shorter_fits (ts : list token) n m : List.length ts <= L -> 8 * List.length ts + 1 <= S n -> 8 * List.length ts + 1 <= S m ->
    forall r, List.length r < List.length ts -> fits r n m.
  Proof. unfold fits. intros. lia. Qed.

  Ltac arith := cbn [List.length] in *; lia.
  Ltac fit := match goal with F : forall r, _ -> fits r _ _ |- _ => apply F; arith end.
  Ltac solve_call :=
    first
      [ reflexivity
      | apply ih_term; fit | apply ih_term3; fit | apply ih_block; fit | apply ih_term2; fit | apply ih_term1; fit | apply ih_postfix; fit | apply ih_clause; fit
      | apply p_opttyargs_stable; arith | apply p_optnames_stable; arith
      | apply (p_ty_stable _ _ (le_n _)); arith
      | apply comma_loop_stable; [apply p_term_shorter | intros; apply ih_term; fit | arith | arith]
      | apply comma_loop_stable; [apply p_clause_shorter | intros; apply ih_clause; fit | arith | arith]
      | match goal with St : stable _ _ _ |- _ => apply St; arith end ].
  (* [stab n m] proves [e n = e m] for a parser body [e], one bind at a time; [share] as in ParseFuel.v ([len]):
     every repeated closed sub-parser is proved stable once and replaced by a variable before a case split. *)
  Ltac stab n m :=
    repeat first
      [ reflexivity
      | match goal with
        | |- obind ?e1 _ = obind ?e2 _ =>
            first [ constr_eq e1 e2
                  | let Q := fresh "Q" in assert (Q : e1 = e2) by solve_call; rewrite Q; clear Q ];
            let E := fresh "E" in let p := fresh "p" in
            destruct e2 as [p|] eqn:E; cbn [obind]; [|reflexivity];
            match type of p with (_ * _)%type => destruct p | _ => idtac end; lenfact E
        | |- (let (_, _) := ?p in _) = _ => destruct p
        | |- (if ?b then _ else _) = _ => destruct b
        | |- (match ?x with _ => _ end) = _ => share n m; destruct x
        end
      | solve_call ]
  with share n m :=
    repeat match goal with
      | |- context [@obind ?X ?Y ?e ?k] =>
          let t := constr:(@obind X Y e k) in
          lazymatch (eval pattern n in t) with
          | ?F _ =>
              let t' := eval cbv beta in (F m) in
              tryif constr_eq t t' then fail else
                (let Q := fresh "Q" in
                 assert (Q : t = t') by stab n m;
                 rewrite Q; clear Q; generalize t'; intro)
          end
      end.

  Section Same.
    Variable ts : list token.
    Hypothesis HL : List.length ts <= L.

    Lemma stable_term1 : stable p_term1 1 ts.
    Proof.
      intros n m Hn Hm. destruct n as [|n]; [lia|]. destruct m as [|m]; [lia|].
      pose proof (shorter_fits ts n m HL ltac:(lia) ltac:(lia)) as F.
      rewrite (p_term1_unfold n), (p_term1_unfold m). unfold B_term1. stab n m.
    Qed.
    Lemma stable_postfix e b : stable (fun n => p_postfix n e b) 1 ts.
    Proof.
      intros n m Hn Hm. destruct n as [|n]; [lia|]. destruct m as [|m]; [lia|].
      pose proof (shorter_fits ts n m HL ltac:(lia) ltac:(lia)) as F.
      rewrite (p_postfix_unfold n), (p_postfix_unfold m). unfold B_postfix. stab n m.
    Qed.
    Lemma stable_clause pol : stable (fun n => p_clause n pol) 1 ts.
    Proof.
      intros n m Hn Hm. destruct n as [|n]; [lia|]. destruct m as [|m]; [lia|].
      pose proof (shorter_fits ts n m HL ltac:(lia) ltac:(lia)) as F.
      rewrite (p_clause_unfold n), (p_clause_unfold m). unfold B_clause. destruct pol; stab n m.
    Qed.
    Lemma stable_block : stable p_block 1 ts.
    Proof.
      intros n m Hn Hm. destruct n as [|n]; [lia|]. destruct m as [|m]; [lia|].
      pose proof (shorter_fits ts n m HL ltac:(lia) ltac:(lia)) as F.
      rewrite (p_block_unfold n), (p_block_unfold m). unfold B_block. stab n m.
    Qed.
    Lemma stable_term2 : stable p_term2 2 ts.
    Proof.
      pose proof stable_term1 as S1.
      intros n m Hn Hm. destruct n as [|n]; [lia|]. destruct m as [|m]; [lia|].
      pose proof (shorter_fits ts n m HL ltac:(lia) ltac:(lia)) as F.
      rewrite (p_term2_unfold n), (p_term2_unfold m). unfold B_term2. stab n m.
    Qed.
    Lemma stable_term3 : stable p_term3 3 ts.
    Proof.
      pose proof stable_term2 as S2.
      intros n m Hn Hm. destruct n as [|n]; [lia|]. destruct m as [|m]; [lia|].
      pose proof (shorter_fits ts n m HL ltac:(lia) ltac:(lia)) as F.
      rewrite (p_term3_unfold n), (p_term3_unfold m). unfold B_term3. stab n m.
    Qed.
    Lemma stable_term : stable p_term 4 ts.
    Proof.
      pose proof stable_term3 as S3.
      intros n m Hn Hm. destruct n as [|n]; [lia|]. destruct m as [|m]; [lia|].
      pose proof (shorter_fits ts n m HL ltac:(lia) ltac:(lia)) as F.
      rewrite (p_term_unfold n), (p_term_unfold m). unfold B_term. rewrite (S3 n m) by lia. stab n m.
    Qed.
  End Same.
End Step.

Theorem terms_stable : forall L ts, List.length ts < L -> all_stable ts.
Proof.
  induction L as [|L IH]; intros ts H; [lia|].
  assert (HL : List.length ts <= L) by lia.
  exact (Build_all_stable ts (stable_term L IH ts HL) (stable_term3 L IH ts HL) (stable_block L IH ts HL) (stable_term2 L IH ts HL)
           (stable_term1 L IH ts HL) (stable_postfix L IH ts HL) (stable_clause L IH ts HL)).
Qed.

Lemma p_term_stable ts n m : 8 * List.length ts + 4 <= n -> 8 * List.length ts + 4 <= m -> p_term n ts = p_term m ts.
Proof. exact (st_term ts (terms_stable (S (List.length ts)) ts (Nat.lt_succ_diag_r _)) n m). Qed.
Lemma p_block_stable ts n m : 8 * List.length ts + 1 <= n -> 8 * List.length ts + 1 <= m -> p_block n ts = p_block m ts.
Proof. exact (st_block ts (terms_stable (S (List.length ts)) ts (Nat.lt_succ_diag_r _)) n m). Qed.

Lemma p_ctorsig_shorter n : shorter (p_ctorsig n).
Proof.
  intros ts x r H. unfold p_ctorsig in H.
  inv_obind H. destruct p as [c r0]. inv_obind H. destruct p as [g r1]. injection H as <- <-.
  apply p_upper_shorter in E. apply p_optctx_nolonger in E0. lia.
Qed.
Lemma p_dtorsig_shorter n : shorter (p_dtorsig n).
Proof.
  intros ts x r H. unfold p_dtorsig in H.
  inv_obind H. destruct p as [c r0]. inv_obind H. destruct p as [g r1]. inv_obind H. inv_obind H. destruct p as [t r3].
  injection H as <- <-.
  apply p_lower_shorter in E. apply p_optctx_nolonger in E0. apply expect_len in E1. apply p_ty_shorter in E2. lia.
Qed.
Lemma p_ctorsig_stable n m ts : List.length ts < n -> List.length ts < m -> p_ctorsig n ts = p_ctorsig m ts.
Proof.
  intros Hn Hm. unfold p_ctorsig.
  destruct (p_upper ts) as [[x r]|] eqn:E; cbn [obind]; [|reflexivity].
  apply p_upper_shorter in E. rewrite (p_optctx_stable n m r) by lia. reflexivity.
Qed.
Lemma p_dtorsig_stable n m ts : List.length ts < n -> List.length ts < m -> p_dtorsig n ts = p_dtorsig m ts.
Proof.
  intros Hn Hm. unfold p_dtorsig.
  destruct (p_lower ts) as [[x r]|] eqn:E; cbn [obind]; [|reflexivity].
  apply p_lower_shorter in E. rewrite (p_optctx_stable n m r) by lia.
  destruct (p_optctx m r) as [[g r1]|] eqn:E1; cbn [obind]; [|reflexivity].
  apply p_optctx_nolonger in E1.
  destruct (expect SColon r1) as [r2|] eqn:E2; cbn [obind]; [|reflexivity].
  apply expect_len in E2.
  rewrite (p_ty_stable _ r2 (le_n _) n m) by lia. reflexivity.
Qed.

Lemma p_decl_shorter n : shorter (p_decl n).
Proof.
  intros ts x r H. unfold p_decl in H.
  destruct ts as [|t ts]; [discriminate H|]. destruct t; try discriminate H. destruct k; try discriminate H.
  all: destruct ts as [|t' ts']; [discriminate H|]; destruct t'; try discriminate H.
  - inv_obind H. destruct p as [g r1]. inv_obind H. inv_obind H. destruct p as [t r3]. inv_obind H. destruct p as [b r4].
    injection H as <- <-.
    apply p_optctx_nolonger in E. apply expect_len in E0. apply p_ty_shorter in E1. apply p_block_shorter in E2.
    cbn [List.length]. lia.
  - inv_obind H. destruct p as [ps r1]. inv_obind H. inv_obind H. destruct p as [cs r3]. injection H as <- <-.
    apply p_opttypectx_nolonger in E. apply expect_len in E0.
    apply (comma_loop_shorter _ _ _ (p_ctorsig_shorter n)) in E1. cbn [List.length]. lia.
  - inv_obind H. destruct p as [ps r1]. inv_obind H. inv_obind H. destruct p as [cs r3]. injection H as <- <-.
    apply p_opttypectx_nolonger in E. apply expect_len in E0.
    apply (comma_loop_shorter _ _ _ (p_dtorsig_shorter n)) in E1. cbn [List.length]. lia.
Qed.

Lemma p_decl_stable ts n m : 8 * List.length ts + 4 <= n -> 8 * List.length ts + 4 <= m -> p_decl n ts = p_decl m ts.
Proof.
  intros Hn Hm. unfold p_decl.
  destruct ts as [|t ts]; [reflexivity|]. destruct t; try reflexivity. destruct k; try reflexivity.
  all: destruct ts as [|t' ts']; [reflexivity|]; destruct t'; try reflexivity; cbn [List.length] in *.
  - rewrite (p_optctx_stable n m ts') by lia.
    destruct (p_optctx m ts') as [[g r1]|] eqn:E; cbn [obind]; [|reflexivity]. apply p_optctx_nolonger in E.
    destruct (expect SColon r1) as [r2|] eqn:E0; cbn [obind]; [|reflexivity]. apply expect_len in E0.
    rewrite (p_ty_stable _ r2 (le_n _) n m) by lia.
    destruct (p_ty m r2) as [[t r3]|] eqn:E1; cbn [obind]; [|reflexivity]. apply p_ty_shorter in E1.
    rewrite (p_block_stable r3 n m) by lia. reflexivity.
  - rewrite (p_opttypectx_stable n m ts') by lia.
    destruct (p_opttypectx m ts') as [[ps r1]|] eqn:E; cbn [obind]; [|reflexivity]. apply p_opttypectx_nolonger in E.
    destruct (expect SLBrace r1) as [r2|] eqn:E0; cbn [obind]; [|reflexivity]. apply expect_len in E0.
    rewrite (comma_loop_stable (p_ctorsig n) (p_ctorsig m) SRBrace (p_ctorsig_shorter m) n m r2); [reflexivity| |lia|lia].
    intros ts'' Hl. apply p_ctorsig_stable; lia.
  - rewrite (p_opttypectx_stable n m ts') by lia.
    destruct (p_opttypectx m ts') as [[ps r1]|] eqn:E; cbn [obind]; [|reflexivity]. apply p_opttypectx_nolonger in E.
    destruct (expect SLBrace r1) as [r2|] eqn:E0; cbn [obind]; [|reflexivity]. apply expect_len in E0.
    rewrite (comma_loop_stable (p_dtorsig n) (p_dtorsig m) SRBrace (p_dtorsig_shorter m) n m r2); [reflexivity| |lia|lia].
    intros ts'' Hl. apply p_dtorsig_stable; lia.
Qed.

Lemma p_decls_stable : forall m1 m2 n1 n2 ts,
  List.length ts < m1 -> List.length ts < m2 -> 8 * List.length ts + 4 <= n1 -> 8 * List.length ts + 4 <= n2 ->
  p_decls m1 n1 ts = p_decls m2 n2 ts.
Proof.
  induction m1 as [|m1 IH]; intros m2 n1 n2 ts H1 H2 N1 N2; [lia|].
  destruct m2 as [|m2]; [lia|].
  cbn [p_decls]. destruct ts as [|t ts]; [reflexivity|].
  rewrite (p_decl_stable (t :: ts) n1 n2 N1 N2).
  destruct (p_decl n2 (t :: ts)) as [[d r]|] eqn:E; cbn [obind]; [|reflexivity].
  apply p_decl_shorter in E.
  rewrite (IH m2 n1 n2 r) by lia. reflexivity.
Qed.

Definition parse_with (m n : nat) (ts : list token) : option fprog :=
  do ds <- p_decls m n ts; Some (mkfprog ds).

(* The fuel theorem: any iteration bound above |ts| and any fuel from [fuel_of ts] on give the answer of [parse];
   so the answer of [parse] is that of the unbounded recursive descent, and its None is a genuine reject. *)
Theorem parse_fuel_suffices : forall ts m n,
  List.length ts < m -> fuel_of ts <= n -> parse_with m n ts = parse ts.
Proof.
  intros ts m n Hm Hn. unfold parse_with, parse, fuel_of in *.
  rewrite (p_decls_stable m (S (List.length ts)) n (8 * List.length ts + 16) ts) by lia. reflexivity.
Qed.

Corollary parse_reject_is_genuine : forall ts,
  parse ts = None -> forall m n, List.length ts < m -> fuel_of ts <= n -> parse_with m n ts = None.
Proof. intros ts H m n Hm Hn. rewrite (parse_fuel_suffices ts m n Hm Hn). exact H. Qed.

