(* Erasure: the instrumented machine of Sem/AxHeap.v computes the observation of the linear machine
   `exec_linear` of Sem/AxSem.v (for every program, well-typed or not: the heap component never
   influences values or control). *)
From Coq Require Import List ZArith NArith String Bool Lia.
From SCC Require Import Base.Sexp Lang.AxSyn Sem.AxSem Sem.AxHeap.
From SCC Require Model.Heap.
Import ListNotations.
Open Scope list_scope.

Lemma erase_app a b : erase_env (a ++ b) = erase_env a ++ erase_env b.
Proof. apply map_app. Qed.
Lemma erase_attach : forall e ps, erase_env (attach e ps) = e.
Proof. induction e as [|xv e IH]; intros ps; cbn; auto. destruct ps; cbn; now rewrite IH. Qed.
Lemma erase_length he : List.length (erase_env he) = List.length he.
Proof. apply map_length. Qed.
Lemma map_snd_erase he : map snd (erase_env he) = map h_val he.
Proof. unfold erase_env. rewrite map_map. reflexivity. Qed.
Lemma attach_length : forall e ps, List.length (attach e ps) = List.length e.
Proof. induction e as [|xv e IH]; intros ps; cbn; auto. destruct ps; cbn; now rewrite IH. Qed.

Lemma hlookup_erase : forall he x,
  lookup (erase_env he) x = match hlookup he x with Some en => Some (h_val en) | None => None end.
Proof.
  induction he as [|[[y v] q] he IH]; intros x; cbn; auto.
  unfold h_id; cbn. destruct (N.eqb (idn y) x); auto.
Qed.

Lemma hsubst_erase : forall re he,
  match hsubst he re with
  | Some he' => exists vs, lookups (erase_env he) (map snd re) = Some vs /\
                           bind (map (fun r => bvar (fst r)) re) vs = Some (erase_env he')
  | None => lookups (erase_env he) (map snd re) = None
  end.
Proof.
  induction re as [|[nb old] re IH]; intros he; cbn [hsubst map lookups].
  - exists []. split; reflexivity.
  - specialize (IH he). unfold lookup_id. rewrite hlookup_erase. cbn [snd].
    destruct (hlookup he (idn old)) as [en|]; [|reflexivity].
    destruct (hsubst he re) as [he'|].
    + destruct IH as (vs & H1 & H2). exists (h_val en :: vs). rewrite H1. split; [reflexivity|].
      cbn [bind fst]. rewrite H2. reflexivity.
    + rewrite IH. reflexivity.
Qed.

Lemma split_last_erase n he :
  split_last n (erase_env he) =
  match split_last n he with Some (a, b) => Some (erase_env a, erase_env b) | None => None end.
Proof.
  unfold split_last. rewrite erase_length. destruct (Nat.leb n (List.length he)); auto.
  unfold erase_env. now rewrite firstn_map, skipn_map.
Qed.

Theorem hexec_erase p : forall fuel c out tr,
  fst (fst (hexec fuel p c out tr)) = exec_linear fuel p (erase_env (hc_env c)) (hc_stmt c) out.
Proof.
  induction fuel as [|fuel IH]; intros [he hs s] out tr; [reflexivity|].
  cbn [hexec exec_linear hc_env hc_heap hc_stmt].
  destruct s as [re next|l args|v t tag args next|v t cls|v t [cenv|] cls next|v tag t args|n v next|a o b v next|nl v next|so a b t el|v];
    cbn [hstep].
  - (* substitute *)
    pose proof (hsubst_erase re he) as H. destruct (hsubst he re) as [he'|].
    + destruct H as (vs & H1 & H2). rewrite H1, H2. rewrite IH. reflexivity.
    + rewrite H. reflexivity.
  - (* call *)
    destruct (find_def p l) as [d|]; [|reflexivity].
    destruct (bind (vars (dctx d)) (map snd (erase_env he))) as [e'|]; [|reflexivity].
    rewrite IH. cbn [hc_env hc_stmt]. now rewrite erase_attach.
  - (* let *)
    rewrite split_last_erase. destruct (ty_name t) as [tn|]; [|reflexivity].
    destruct (split_last (List.length args) he) as [[he0 fs]|]; [|reflexivity].
    destruct (ids_eqb (env_ids (erase_env fs)) (ids args)); [|reflexivity].
    rewrite IH. cbn [hc_env hc_stmt]. rewrite erase_app, map_snd_erase. reflexivity.
  - (* switch *)
    rewrite split_last_erase. destruct (split_last 1 he) as [[he0 l]|]; [|reflexivity].
    destruct l as [|[[x v0] q] [|en2 l]]; cbn [erase_env map fst]; [reflexivity| |destruct v0; reflexivity].
    destruct v0 as [z|ty tg fs|ty cs ce]; [reflexivity| |reflexivity].
    destruct (N.eqb (idn x) (idn v)); [|reflexivity].
    destruct (find_clause cls tg) as [c|]; [|reflexivity].
    destruct (bind (vars (cl_ctx c)) fs) as [e1|]; [|reflexivity].
    rewrite IH. cbn [hc_env hc_stmt]. rewrite erase_app, erase_attach. reflexivity.
  - (* create, annotated *)
    rewrite split_last_erase. destruct (ty_name t) as [tn|]; [|reflexivity].
    destruct (split_last (List.length cenv) he) as [[he0 cap]|]; [|reflexivity].
    destruct (ids_eqb (env_ids (erase_env cap)) (ids cenv)); [|reflexivity].
    rewrite map_snd_erase. destruct (bind (vars cenv) (map h_val cap)) as [ce|]; [|reflexivity].
    rewrite IH. cbn [hc_env hc_stmt]. rewrite erase_app. reflexivity.
  - reflexivity.
  - (* invoke *)
    rewrite split_last_erase. destruct (split_last 1 he) as [[he0 l]|]; [|reflexivity].
    destruct l as [|[[x v0] q] [|en2 l]]; cbn [erase_env map fst]; [reflexivity| |destruct v0; reflexivity].
    destruct v0 as [z|ty tg fs|ty cs ce]; [reflexivity|reflexivity|].
    destruct (N.eqb (idn x) (idn v)); [|reflexivity].
    destruct (find_clause cs tag) as [c|]; [|reflexivity].
    fold (erase_env he0).
    destruct (bind (vars (cl_ctx c)) (map snd (erase_env he0))) as [e1|]; [|reflexivity].
    rewrite IH. cbn [hc_env hc_stmt]. rewrite erase_app, !erase_attach. reflexivity.
  - (* literal *)
    rewrite IH. cbn [hc_env hc_stmt]. rewrite erase_app. reflexivity.
  - (* op *)
    destruct (lookup_int (erase_env he) a) as [x|]; [|reflexivity].
    destruct (lookup_int (erase_env he) b) as [y|]; [|reflexivity].
    destruct (eval_op o x y) as [z|w]; [|reflexivity].
    rewrite IH. cbn [hc_env hc_stmt]. rewrite erase_app. reflexivity.
  - (* print *)
    destruct (lookup_int (erase_env he) v) as [z|]; [|reflexivity].
    rewrite IH. reflexivity.
  - (* ifc *)
    destruct (lookup_int (erase_env he) a) as [x|]; [|reflexivity].
    destruct (match b with Some b0 => lookup_int (erase_env he) b0 | None => Some 0%Z end) as [y|]; [|reflexivity].
    rewrite IH. reflexivity.
  - (* exit *)
    destruct (lookup_int (erase_env he) v) as [z|]; reflexivity.
Qed.

Theorem hrun_prog_erase fuel base p args :
  match hrun_prog fuel base p args with
  | Some r => fst (fst r) = run_linear fuel p args
  | None => exists w, run_linear fuel p args = ([], OStuck w)
  end.
Proof.
  unfold hrun_prog, run_linear. destruct (pdefs p) as [|d ds]; [eexists; reflexivity|].
  destruct (entry_env d args) as [e|]; [|eexists; reflexivity].
  rewrite hexec_erase. unfold hinit; cbn [hc_env hc_stmt]. now rewrite erase_attach.
Qed.
