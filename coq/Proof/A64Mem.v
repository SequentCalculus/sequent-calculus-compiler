(* C09 on AArch64, groundwork: the abstraction `abs_heap` of an AArch64 machine state (Sem/A64Sem.v) to the
   abstract allocator state of Model/Heap.v, heap words, single instructions on heap words, temporaries of
   environment positions (`tpos`), and what a piece of allocator code leaves alone (`sbt`, `nonblk_same`,
   `stack_frame`).

   Shared with x86-64: the block predicate `is_blk`, the block-wise equality `st_eqB` of
   abstract states, `heap_addr`, and every lemma about them that does not mention a machine state live in
   Proof/X86Mem.v / Proof/X86MemFrame.v; the two ISA models use the same heap region (HEAP_BASE, HEAP_SIZE), so
   these are used here under their qualified names (notations below).  The execution vocabulary is the one of
   Proof/A64Exec.v (`exec_to`, `code_at`, `labels_at`, `padd`). *)
From Coq Require Import List ZArith NArith String Bool Lia FMapPositive.
From SCC Require Import Base.Sexp Lang.AxSyn Sem.AxSem Model.Backend Model.A64 Sem.A64Sem Generated.Constants
     Proof.A64State Proof.A64ImmHw Proof.A64Imm Proof.A64Sel Proof.A64Exec Proof.A64MemSubst.
From SCC Require Model.Heap Model.X86 Sem.X86Sem Proof.X86Mem Proof.X86MemFrame.
Import ListNotations.
Open Scope Z_scope.

Notation is_blk := X86Mem.is_blk.
Notation st_eqB := X86Mem.st_eqB.
Notation heap_addr := X86Mem.heap_addr.

(* the two ISA models place the heap at the same addresses *)
Lemma heap_base_same : X86Sem.HEAP_BASE = HEAP_BASE /\ X86Sem.HEAP_SIZE = HEAP_SIZE.
Proof. split; reflexivity. Qed.
Ltac unfb := unfold X86Sem.HEAP_BASE, X86Sem.HEAP_SIZE, HEAP_BASE, HEAP_SIZE in *.

Definition hword (s : astate) (a : Z) : Z := hget (heap s) a.
Definition abs_mem (s : astate) : Heap.mem :=
  fun a => {| Heap.hdr := hword s a; Heap.ps := [hword s (a + 16); hword s (a + 32); hword s (a + 48)] |}.
Definition reg_or0 (s : astate) (r : areg) : Z := match rget s r with Some z => z | None => 0 end.
Definition abs_heap (F : Z) (s : astate) : Heap.st :=
  {| Heap.m := abs_mem s; Heap.heap := reg_or0 s HEAP; Heap.free := reg_or0 s FREE; Heap.frontier := F |}.

Notation hset := set_heap.

Lemma heap_addr_block_ok a : heap_addr a -> block_ok a.
Proof.
  intros (A & L & H). split; [exact A|]. unfold in_heap. unfb. apply andb_true_iff. split; apply Z.leb_le; lia.
Qed.
Lemma heap_addr_pos a : heap_addr a -> 0 < a.
Proof. intros (_ & L & _). unfb. lia. Qed.

Lemma key_pos_eq a b : 0 < a -> key a = key b -> a = b.
Proof.
  unfold key. intros Ha E. destruct (Z_le_gt_dec b 0) as [Hb|Hb].
  - rewrite (Z2Pos.to_pos_nonpos (b + 1)) in E by lia.
    apply (f_equal Z.pos) in E. rewrite Z2Pos.id in E by lia. lia.
  - apply (f_equal Z.pos) in E. rewrite !Z2Pos.id in E by lia. lia.
Qed.
Lemma hget_add h a z b : 0 < a -> hget (PM.add (key a) z h) b = if b =? a then z else hget h b.
Proof.
  intros Ha. unfold hget. destruct (Z.eqb_spec b a) as [->|Hne].
  - now rewrite PM.gss.
  - rewrite PM.gso; auto. intro E. symmetry in E. apply key_pos_eq in E; auto.
Qed.
Lemma hword_hset s a z b : 0 < a -> hword (hset s a z) b = if b =? a then z else hword s b.
Proof. intros Ha. unfold hword, set_heap; cbn [heap]. now apply hget_add. Qed.
Lemma hword_hset_off s base a z o :
  0 < base + a -> hword (hset s (base + a) z) (base + o) = if o =? a then z else hword s (base + o).
Proof.
  intros Ha. rewrite hword_hset by exact Ha.
  destruct (Z.eqb_spec o a), (Z.eqb_spec (base + o) (base + a)); lia || reflexivity.
Qed.
Lemma hword_rset s r v a : hword (rset s r v) a = hword s a. Proof. unfold hword. now rewrite heap_rset. Qed.
Lemma hword_set_flags s f a : hword (set_flags s f) a = hword s a. Proof. reflexivity. Qed.
Lemma hword_sset s sp q v a : hword (sset s sp q v) a = hword s a. Proof. reflexivity. Qed.
Lemma hword_lset s sp t v a : hword (lset s sp t v) a = hword s a. Proof. destruct t; [apply hword_rset|reflexivity]. Qed.
Lemma stack_hset s a z : stack (hset s a z) = stack s. Proof. reflexivity. Qed.
Lemma out_hset s a z : out (hset s a z) = out s. Proof. reflexivity. Qed.
Lemma sget_hset s sp a z q : sget (hset s a z) sp q = sget s sp q. Proof. reflexivity. Qed.
Lemma frame_ok_hset s sp a z : frame_ok s sp -> frame_ok (hset s a z) sp.
Proof. intros (A & B). split; [exact A|exact B]. Qed.
Lemma lget_hset s sp a z t : lget (hset s a z) sp t = lget s sp t.
Proof. destruct t; [apply rget_set_heap|reflexivity]. Qed.

Ltac rg := repeat first [rewrite rget_set_flags | rewrite rget_set_heap | rewrite rget_sset
                        | rewrite rget_rset_other by (first [congruence|discriminate])].

Section HeapSteps.
Variable im : image.
Lemma ea_gp s b i p k : gp b -> rget s b = Some p -> ea s b i k = k (p + i).
Proof. intros G R. unfold ea, need. rewrite R. destruct b; cbn in G; tauto. Qed.
Lemma step_LDR_h s d b i p :
  gp b -> rget s b = Some p -> heap_addr (p + i) -> step im (LDR d b i) s = Next (rset s d (Some (hword s (p + i)))).
Proof.
  intros G R H. cbn [step]. rewrite (ea_gp s b i p) by auto. unfold withm.
  rewrite mload_heap by (now apply heap_addr_block_ok). reflexivity.
Qed.
Lemma step_STR_h s a b i p v :
  gp b -> rget s b = Some p -> heap_addr (p + i) -> rget s a = Some v -> step im (STR a b i) s = Next (hset s (p + i) v).
Proof.
  intros G R H A. cbn [step]. rewrite (ea_gp s b i p) by auto. unfold withm.
  rewrite A, mstore_heap by (now apply heap_addr_block_ok). reflexivity.
Qed.
Lemma step_LAB s l : step im (LAB l) s = Next s. Proof. reflexivity. Qed.
End HeapSteps.

Lemma nth_error_snoc {A} (l : list A) x i y :
  nth_error (l ++ [x]) i = Some y -> nth_error l i = Some y \/ i = List.length l /\ y = x.
Proof.
  intros H. destruct (Nat.lt_ge_cases i (List.length l)) as [Hlt|Hge]; [left; now rewrite nth_error_app1 in H|right].
  rewrite nth_error_app2 in H by exact Hge.
  destruct (i - List.length l)%nat as [|[|d]] eqn:Ed; try discriminate. inversion H. split; [lia|reflexivity].
Qed.

Lemma padd_succ' p n : padd (Pos.succ p) n = Pos.succ (padd p n).
Proof. now rewrite <- padd_succ. Qed.
Lemma code_at_app2 im pos a b : code_at im pos (a ++ b) -> code_at im pos a /\ code_at im (padd pos (List.length a)) b.
Proof. apply code_at_app. Qed.
Lemma labels_at_app2 im pos a b : labels_at im pos (a ++ b) -> labels_at im pos a /\ labels_at im (padd pos (List.length a)) b.
Proof. apply labels_at_app. Qed.
Lemma exec_app_len im pos (a b : list acode) s s1 s2 :
  exec_to im pos s (padd pos (List.length a)) s1 ->
  exec_to im (padd pos (List.length a)) s1 (padd (padd pos (List.length a)) (List.length b)) s2 ->
  exec_to im pos s (padd pos (List.length (a ++ b))) s2.
Proof. intros A B. rewrite app_length, padd_add. eapply exec_to_trans; eassumption. Qed.
Lemma labels_at_cons_nolab im pos c cs :
  (forall l, c <> LAB l) -> labels_at im (Pos.succ pos) cs -> labels_at im pos (c :: cs).
Proof. intros N H [|j] l Hj; cbn in Hj; [inversion Hj; subst; exfalso; eapply N; reflexivity|]. apply (H j). exact Hj. Qed.


Lemma field_offset_val n j : field_offset n j = 16 + 16 * Z.of_N j + 8 * Z.of_N (tnum_n n).
Proof. unfold field_offset, address. change A64C.address1 with 8. lia. Qed.
Lemma field_addr p n j : is_blk p -> (j < 3)%N -> heap_addr (p + field_offset n j).
Proof.
  intros Hb Hj. rewrite field_offset_val. apply X86MemFrame.is_blk_word; auto.
  - destruct n; cbn [tnum_n]; lia.
  - destruct n; cbn [tnum_n]; [replace (16 + 16 * Z.of_N j + 8 * Z.of_N 0) with (0 + (2 + 2 * Z.of_N j) * 8) by lia
                              |replace (16 + 16 * Z.of_N j + 8 * Z.of_N 1) with (0 + (3 + 2 * Z.of_N j) * 8) by lia];
      rewrite Z.mod_add by lia; reflexivity.
Qed.
Lemma field_not_blk p n j : is_blk p -> (j < 3)%N -> ~ is_blk (p + field_offset n j).
Proof. intros Hb Hj. rewrite field_offset_val. apply X86MemFrame.not_blk_off; auto. destruct n; cbn [tnum_n]; lia. Qed.
Lemma fo_F0 : field_offset Fst 0 = 16. Proof. reflexivity. Qed.
Lemma fo_F1 : field_offset Fst 1 = 32. Proof. reflexivity. Qed.
Lemma fo_F2 : field_offset Fst 2 = 48. Proof. reflexivity. Qed.
Lemma fo_F3 : field_offset Fst FIELDS_PER_BLOCK = 64. Proof. reflexivity. Qed.

Lemma blk_heap_addr p : is_blk p -> heap_addr p. Proof. apply X86Mem.blk_heap_addr. Qed.
Lemma blk_heap_addr0 p : is_blk p -> heap_addr (p + 0). Proof. rewrite Z.add_0_r. apply X86Mem.blk_heap_addr. Qed.
Lemma is_blk_pos p : is_blk p -> 0 < p. Proof. apply X86MemFrame.is_blk_pos. Qed.

Lemma abs_mem_hset s p z x :
  is_blk p -> is_blk x -> abs_mem (hset s p z) x = Heap.set_hdr (abs_mem s) p z x.
Proof.
  intros Hp Hx. pose proof (is_blk_pos p Hp) as Pp.
  unfold Heap.set_hdr, Heap.upd. destruct (Z.eqb_spec x p) as [->|Hne].
  - unfold abs_mem. cbn [Heap.ps Heap.hdr]. rewrite !hword_hset by exact Pp. rewrite Z.eqb_refl.
    repeat match goal with |- context [?a =? p] => destruct (Z.eqb_spec a p); [lia|] end. reflexivity.
  - unfold abs_mem. destruct (X86MemFrame.is_blk_apart x p Hx Hp Hne);
      rewrite !hword_hset by exact Pp;
      repeat match goal with |- context [?a =? p] => destruct (Z.eqb_spec a p); [lia|] end; reflexivity.
Qed.

Lemma abs_mem_upd s s' p z x :
  is_blk p -> is_blk x -> (forall a, hword s' a = if a =? p then z else hword s a) ->
  abs_mem s' x = Heap.set_hdr (abs_mem s) p z x.
Proof.
  intros Hp Hx W. rewrite <- (abs_mem_hset s p z x Hp Hx). unfold abs_mem.
  rewrite !W, !hword_hset by (now apply is_blk_pos). reflexivity.
Qed.

Definition sbt (s s' : astate) : Prop :=
  (forall r, r <> TEMP -> r <> TEMP2 -> rget s' r = rget s r) /\ stack s' = stack s /\ out s' = out s.
Definition sbtf (s s' : astate) : Prop :=
  (forall r, r <> TEMP -> r <> TEMP2 -> r <> FREE -> rget s' r = rget s r) /\ stack s' = stack s /\ out s' = out s.
Definition nonblk_same (s s' : astate) : Prop := forall a, ~ is_blk a -> hword s' a = hword s a.
(* the stack words that are not spill slots of the frame at sp (the words the prologue saved lie there) *)
Definition stack_frame (s s' : astate) (sp : Z) : Prop :=
  forall k, (forall p, slot_ok p -> k <> key (slot_addr sp p)) -> PM.find k (stack s') = PM.find k (stack s).

Lemma sbt_refl s : sbt s s. Proof. repeat split; reflexivity. Qed.
Lemma sbt_trans s1 s2 s3 : sbt s1 s2 -> sbt s2 s3 -> sbt s1 s3.
Proof. intros (A1 & A2 & A3) (B1 & B2 & B3). split; [|split; congruence]. intros r H1 H2. rewrite B1, A1; auto. Qed.
Lemma sbt_sbtf s s' : sbt s s' -> sbtf s s'.
Proof. intros (A & B & C). split; [|split; assumption]. intros r H1 H2 _. now apply A. Qed.
Lemma sbtf_trans s1 s2 s3 : sbtf s1 s2 -> sbtf s2 s3 -> sbtf s1 s3.
Proof. intros (A1 & A2 & A3) (B1 & B2 & B3). split; [|split; congruence]. intros r H1 H2 H3. rewrite B1, A1; auto. Qed.
Lemma sbt_lget s s' sp t : sbt s s' -> t <> AR TEMP -> t <> AR TEMP2 -> lget s' sp t = lget s sp t.
Proof. intros (A & B & _) H1 H2. destruct t as [r|q]; cbn [lget]; [apply A; congruence|unfold sget; now rewrite B]. Qed.
Lemma sbt_frame s s' sp : sbt s s' -> frame_ok s sp -> frame_ok s' sp.
Proof. intros (A & _) (B & C). split; [|exact C]. change (spv s') with (rget s' SP). rewrite A by discriminate. exact B. Qed.
Lemma sbtf_frame s s' sp : sbtf s s' -> frame_ok s sp -> frame_ok s' sp.
Proof. intros (A & _) (B & C). split; [|exact C]. change (spv s') with (rget s' SP). rewrite A by discriminate. exact B. Qed.
Lemma sbt_regs s s' : sbt s s' -> reg_or0 s' HEAP = reg_or0 s HEAP /\ reg_or0 s' FREE = reg_or0 s FREE.
Proof. intros (H & _). unfold reg_or0. rewrite !H by discriminate. auto. Qed.

Lemma nonblk_same_refl s : nonblk_same s s. Proof. intros a _. reflexivity. Qed.
Lemma nonblk_same_trans s1 s2 s3 : nonblk_same s1 s2 -> nonblk_same s2 s3 -> nonblk_same s1 s3.
Proof. intros A B a Ha. rewrite B, A; auto. Qed.
Lemma nonblk_same_hset s p z : is_blk p -> nonblk_same s (hset s p z).
Proof.
  intros Hb a Ha. rewrite hword_hset by (now apply is_blk_pos).
  destruct (Z.eqb_spec a p); [subst; contradiction|reflexivity].
Qed.
Lemma nonblk_same_heap s s' : heap s' = heap s -> nonblk_same s s'.
Proof. intros E a _. unfold hword. now rewrite E. Qed.

Lemma stack_frame_refl s sp : stack_frame s s sp. Proof. intros k _. reflexivity. Qed.
Lemma stack_frame_trans s1 s2 s3 sp : stack_frame s1 s2 sp -> stack_frame s2 s3 sp -> stack_frame s1 s3 sp.
Proof. intros A B k Hk. rewrite (B k Hk). apply A; exact Hk. Qed.
Lemma stack_frame_eq s s' sp : stack s' = stack s -> stack_frame s s' sp.
Proof. intros E k _. now rewrite E. Qed.
Lemma stack_frame_sset s sp p v : slot_ok p -> stack_frame s (sset s sp p v) sp.
Proof. intros P k Hk. specialize (Hk p P). unfold sset; cbn [stack]. destruct v; [apply PM.gso|apply PM.gro]; exact Hk. Qed.
Lemma stack_frame_sbt s s' sp : sbt s s' -> stack_frame s s' sp.
Proof. intros (_ & E & _). now apply stack_frame_eq. Qed.
Lemma stack_frame_sbtf s s' sp : sbtf s s' -> stack_frame s s' sp.
Proof. intros (_ & E & _). now apply stack_frame_eq. Qed.

Lemma abs_heap_ext F s s' :
  heap s' = heap s -> rget s' HEAP = rget s HEAP -> rget s' FREE = rget s FREE -> abs_heap F s' = abs_heap F s.
Proof. intros E1 E2 E3. unfold abs_heap, abs_mem, reg_or0, hword. now rewrite E1, E2, E3. Qed.
Lemma abs_heap_eqB F s s' :
  (forall a, hword s' a = hword s a) -> rget s' HEAP = rget s HEAP -> rget s' FREE = rget s FREE ->
  st_eqB (abs_heap F s') (abs_heap F s).
Proof.
  intros E1 E2 E3. unfold abs_heap, reg_or0. rewrite E2, E3. split; [reflexivity|]. split; [reflexivity|]. split; [reflexivity|].
  intros x _. unfold abs_mem. cbn [Heap.m]. now rewrite !E1.
Qed.

Definition tpos (k : N) : atemp := (if k + 4 <? 30 then AR (X (k + 4)) else AS (k - 25))%N.
Definition MAXPOS : N := 281.

Lemma tfp_tpos k t : temporary_from_position k = Ok t -> t = tpos k /\ (k < MAXPOS)%N.
Proof.
  unfold temporary_from_position, tpos, MAXPOS.
  change RESERVED with 4%N. change REGISTER_NUM with 30%N. change RESERVED_SPILLS with 1%N. change SPILL_NUM with 256%N.
  replace (k + 4)%N with (k + 4)%N by reflexivity.
  destruct (N.ltb_spec (k + 4) 30); [intros H0; inversion H0; split; [reflexivity|lia]|].
  destruct (N.ltb_spec (k + 4 - 30 + 1) 256); [|discriminate].
  intros H1. inversion H1. split; [f_equal; lia|lia].
Qed.
Lemma tpos_tfp k : (k < MAXPOS)%N -> temporary_from_position k = Ok (tpos k).
Proof.
  unfold temporary_from_position, tpos, MAXPOS.
  change RESERVED with 4%N. change REGISTER_NUM with 30%N. change RESERVED_SPILLS with 1%N. change SPILL_NUM with 256%N.
  intros Hk. destruct (N.ltb_spec (k + 4) 30); [reflexivity|].
  destruct (N.ltb_spec (k + 4 - 30 + 1) 256); [|lia]. do 2 f_equal. lia.
Qed.
Lemma a_fresh_tpos n c t :
  a_fresh n c = Ok t -> t = tpos (2 * N.of_nat (List.length c) + tnum_n n) /\ (2 * N.of_nat (List.length c) + tnum_n n < MAXPOS)%N.
Proof. apply tfp_tpos. Qed.
Lemma tpos_loc_ok k : (k < MAXPOS)%N -> loc_ok (tpos k).
Proof.
  unfold tpos, MAXPOS. intros Hk. destruct (N.ltb_spec (k + 4) 30); cbn [loc_ok gp]; [exact I|].
  unfold slot_ok. change SPILL_NUM with 256%N. lia.
Qed.
Lemma tpos_inj k k' : tpos k = tpos k' -> k = k'.
Proof. unfold tpos. destruct (N.ltb_spec (k + 4) 30), (N.ltb_spec (k' + 4) 30); intros E; inversion E; lia. Qed.
Lemma tpos_neq k k' : k <> k' -> tpos k <> tpos k'.
Proof. intros H E. apply H. now apply tpos_inj. Qed.
Lemma tpos_reg k r : tpos k = AR r -> r = X (k + 4) /\ (k < 26)%N.
Proof. unfold tpos. destruct (N.ltb_spec (k + 4) 30); intros E; inversion E. split; [reflexivity|lia]. Qed.
Lemma tpos_slot k q : tpos k = AS q -> q = (k - 25)%N /\ (26 <= k)%N.
Proof. unfold tpos. destruct (N.ltb_spec (k + 4) 30); intros E; inversion E. split; [reflexivity|lia]. Qed.
(* a temporary of a position is none of the reserved locations *)
Lemma tpos_not_reserved k :
  tpos k <> AR HEAP /\ tpos k <> AR FREE /\ tpos k <> AR TEMP /\ tpos k <> AR TEMP2 /\ tpos k <> AS SPILL_TEMP /\
  tpos k <> AR SP /\ tpos k <> AR XZR.
Proof.
  unfold tpos. change TEMP with (X 2). change TEMP2 with (X 3). change HEAP with (X 0). change FREE with (X 1). change SPILL_TEMP with 0%N.
  destruct (N.ltb_spec (k + 4) 30); repeat split; intros E; inversion E; lia.
Qed.
Lemma tpos_not_temp k : tpos k <> AR TEMP. Proof. apply tpos_not_reserved. Qed.
Lemma tpos_not_temp2 k : tpos k <> AR TEMP2. Proof. apply tpos_not_reserved. Qed.
Lemma tpos_operand_ok k : (k < MAXPOS)%N -> operand_ok (tpos k).
Proof. intros H. split; [now apply tpos_loc_ok|]. split; [apply tpos_not_temp|apply tpos_not_temp2]. Qed.
Lemma sbt_tpos s s' sp k : sbt s s' -> lget s' sp (tpos k) = lget s sp (tpos k).
Proof. intros H. apply sbt_lget; [exact H|apply tpos_not_temp|apply tpos_not_temp2]. Qed.
