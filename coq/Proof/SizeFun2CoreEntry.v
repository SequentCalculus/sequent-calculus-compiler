(* C19, fun2core: the entry point of a program in which main is called (fix f929eb7 of /repo),
     def main<n>(params) { main(params, mu~x. exit x) }      = compile_main of [entry_fdef d nm],
   has EXACTLY 5 + (1 + k) * #params units (k = 0: nodes - the definition, the call, one variable per parameter, mu~,
   exit, the variable; k = 1: plus one per parameter of the definition context) and lifts nothing. *)
From Coq Require Import List ZArith NArith String Bool Lia.
From SCC Require Import Base.Sexp Lang.SynUtil Lang.FunSyn Lang.FunTy Lang.CoreSyn Lang.AxSize Lang.CoreSize.
From SCC Require Import Model.Fun2Core Model.SizeFun Proof.Fun2CoreProof Proof.Fun2CoreTfv Proof.Fun2CoreInv Proof.Fun2CoreProg
     Proof.SizeLin Proof.SizeGen Proof.SizeFun2CoreFv Proof.SizeFun2Core Proof.SizeFun2CoreRefute.
Import ListNotations.
Open Scope string_scope.
Open Scope list_scope.
Open Scope N_scope.
Local Arguments N.add : simpl never.
Local Arguments N.mul : simpl never.
Local Arguments len : simpl never.

Lemma entry_size : forall k codata d nm ul e ule,
  compile_main false (entry_fdef d nm) codata ul = Ok (e, ule) ->
  cz_defs k e = 5 + len (fdctx d) + k * len (fdctx d).
Proof.
  intros k codata d nm ul e ule H.
  destruct (compile_main_inv _ _ _ _ _ _ H) as (bty & x0 & stx & body & st' & Eb & Hx & Hwc & -> & _).
  cbn [entry_fdef fdbody fterm_type fdctx fdname] in Eb, Hx, Hwc |- *. injection Eb as <-.
  rewrite wc_unfold in Hwc. apply wc_call_inv in Hwc. destruct Hwc as [args' [ret0 [Hargs [Eret Es]]]].
  injection Eret as <-. subst body. fold (entry_args (fdctx d)) in Hargs.
  destruct (entry_args_compile _ _ _ _ _ _ Hargs) as [-> ->].
  apply fresh_in_vars_inv in Hx. destruct Hx as (_ & _ & _ & Hl). cbn [st_lifted] in Hl. rewrite Hl.
  cbn [cz_defs]. unfold cz_def. cbn [cdctx cdbody entry_fdef fdctx fdname].
  rewrite cz_stmt_call, cz_args_app, cz_args_bindings. cbn [cz_args cz_arg cz_term cz_stmt].
  unfold compile_ctx. rewrite !len_map. lia.
Qed.

(* the node bound without the additive term entry_params is false of a program whose call of main passes
   fewer arguments than main has parameters (not a checked program): def main(x0 .. x29) { main() } *)
Definition entry_refute_witness : fcprog :=
  mkfcprog [] []
    [mkfdef "main" (map (fun x => mkfb x FPrd FI64) ["x0"; "x1"; "x2"; "x3"; "x4"; "x5"; "x6"; "x7"; "x8"; "x9"; "x10"; "x11"; "x12"; "x13"; "x14"; "x15"; "x16"; "x17"; "x18"; "x19"; "x20"; "x21"; "x22"; "x23"; "x24"; "x25"; "x26"; "x27"; "x28"; "x29"]) FI64 (FCall "main" [] (Some FI64))].
Lemma fun2core_size_without_entry_refuted :
  ~ (forall p c, compile_prog p = Ok c -> size_cprog c <= size_fcprog p * (10 + 2 * fun_occ p)).
Proof.
  intro H. assert (S : core_size_of entry_refute_witness = 38) by (vm_compute; reflexivity).
  destruct (core_size_of_inv _ _ S) as (c & E & Sc); [discriminate|].
  specialize (H _ _ E). rewrite Sc in H. vm_compute in H. apply H. reflexivity.
Qed.
