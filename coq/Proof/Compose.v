(* C01: composition of the stage theorems, and the link between the abstract print trace of the
   machines and the bytes the C runtime writes. *)
From Coq Require Import List ZArith NArith String Ascii Bool Lia.
From SCC Require Import Base.Sexp Lang.AxSyn Lang.FunSyn Lang.CoreSyn Sem.AxSem Sem.CoreSem Sem.FunSem Sem.X86Sem
     Model.Backend Model.Fun2Core Model.Focus Model.FocusCheck Model.Shrink Model.Linearize Model.LinCheck Model.X86 Model.Runtime
     Proof.RuntimeProof Proof.LinSim.
Import ListNotations.
Open Scope Z_scope.

Lemma bytes_of_string_app a b : bytes_of_string (a ++ b)%string = bytes_of_string a ++ bytes_of_string b.
Proof. induction a as [|c a IH]; cbn; [reflexivity|]. now rewrite IH. Qed.

Definition runtime_bytes (pz : bool * Z) : list Z :=
  bytes (if fst pz then println_i64 (snd pz) else print_i64 (snd pz)).
Definition in_i64 (v : Z) : Prop := - 2 ^ 63 <= v < 2 ^ 63.

Theorem render_prints_is_runtime_output (ps : prints) :
  Forall (fun pz => in_i64 (snd pz)) ps ->
  bytes_of_string (render_prints ps) = flat_map runtime_bytes ps.
Proof.
  induction 1 as [|[nl v] ps Hv _ IH]; [reflexivity|].
  cbn [render_prints fold_right flat_map]. fold (render_prints ps).
  rewrite !bytes_of_string_app, IH. unfold runtime_bytes; cbn [fst snd] in *.
  destruct nl.
  - rewrite (println_i64_digits v Hv). rewrite <- app_assoc. reflexivity.
  - rewrite (print_i64_digits v Hv). reflexivity.
Qed.

(* the run ends with `exit` (the Prop form of AxSem.defined): a run that ends in undefined arithmetic is not covered
   by the composition theorems *)
Definition out_ok (o : obs) : Prop := (exists z, snd o = OExit z).

(* The four links in the form in which the compositions assume them when they are not discharged.  Props/C01.v
   states the same four propositions as H_fun2core, H_focus, H_shrink, H_x86 (Props imports Proof, so its Definitions
   cannot be used here; the two sets are convertible). *)
Definition link_fun2core : Prop :=
  forall (p : fcprog) (c : cprog) (args : list Z) (n : nat) (o : obs),
    annotated_fcprog p = true -> effect_sequenced p = true -> barendregt p = true ->
    compile_prog p = Fun2Core.Ok c -> run_fun n p args = o -> defined o = true ->
    exists m, run_core m c args = o.
Definition link_focus : Prop :=
  forall p q args fuel, pre_check p = true -> focus_wf p = true -> focus_prog p = Backend.Ok q ->
    let o := run_core fuel p args in
    ((exists z, snd o = OExit z) \/ (exists w, snd o = OUndef w)) ->
    exists fuel', run_fs fuel' q args = o.
Definition link_shrink : Prop :=
  forall (p : fsprog) (q : prog) (n : nat) (args : list Z) (o : obs),
    shrink_prog p = SOk q -> run_fs n p args = o ->
    ((exists z, snd o = OExit z) \/ (exists w, snd o = OUndef w)) ->
    exists m, run_named m q args = o.
Definition link_x86 : Prop :=
  forall (p : prog) (lc : N) (cs : list xcode) (n : nat) (lc' : N) (args : list Z) (fuel : nat) (o : obs),
    x86_compile p lc = Backend.Ok (cs, n, lc') ->
    run_linear fuel p args = o -> defined o = true ->
    exists outer inner, fst (run_x86 outer inner cs args) = o.

Lemma out_ok_defined : forall o, out_ok o -> defined o = true.
Proof. intros o (z & Hz). unfold defined. now rewrite Hz. Qed.
Lemma out_ok_final : forall o, out_ok o -> (exists z, snd o = OExit z) \/ (exists w, snd o = OUndef w).
Proof. intros o (z & Hz). left; eauto. Qed.

(* the chain, for one run: a Core run with the source's observation is carried through focusing and shrinking (the
   two links as premises about this run) and through the linearizer (C05) *)
Lemma chain_to_linear : forall (c : cprog) (f : fsprog) (a : prog) (args : list Z) (o : obs),
  out_ok o -> (exists m, run_core m c args = o) ->
  (forall m, run_core m c args = o -> exists m', run_fs m' f args = o) ->
  (forall m, run_fs m f args = o -> exists m', run_named m' a args = o) ->
  prog_ok a = true ->
  exists m, run_linear m (linearize a) args = o.
Proof.
  intros c f a args o OK (m1 & R1) L2 L3 Hok.
  destruct (L2 _ R1) as (m2 & R2). destruct (L3 _ R2) as (m3 & R3).
  destruct (linearize_preserves_stable a Hok args m3 o R3 (out_ok_final o OK)) as (m4 & R4).
  specialize (R4 0%nat). rewrite Nat.add_0_r in R4. eauto.
Qed.
(* the assumed focusing link, for one run *)
Lemma focus_link : link_focus ->
  forall c f args o, pre_check c = true -> focus_wf c = true -> focus_prog c = Backend.Ok f -> out_ok o ->
  forall m, run_core m c args = o -> exists m', run_fs m' f args = o.
Proof.
  intros FP c f args o Hpre Hwf Hf OK m R. specialize (FP c f args m Hpre Hwf Hf). cbv zeta in FP. rewrite R in FP.
  exact (FP (out_ok_final o OK)).
Qed.

Section Pipeline.
Hypothesis fun2core_correct : link_fun2core.
Hypothesis focus_preserves : link_focus.
Hypothesis shrink_correct : link_shrink.
Hypothesis x86_codegen_correct : link_x86.

Theorem compile_correct_partial :
  forall (p : fcprog) (c : cprog) (f : fsprog) (a : prog) (cs : list xcode) (nargs : nat) (lc lc' : N)
         (args : list Z) (n : nat) (o : obs),
    (* the source program is in the domain of the translation theorems *)
    annotated_fcprog p = true -> effect_sequenced p = true -> barendregt p = true ->
    (* the pipeline, stage by stage (side conditions re-checked by the executable checkers on every run) *)
    compile_prog p = Fun2Core.Ok c -> pre_check c = true -> focus_wf c = true ->
    focus_prog c = Backend.Ok f -> shrink_prog f = SOk a -> prog_ok a = true ->
    x86_compile (linearize a) lc = Backend.Ok (cs, nargs, lc') ->
    (* a source run that ends with exit *)
    run_fun n p args = o -> out_ok o ->
    (* the emitted code, on the ISA semantics, makes the same print calls and returns the same value; the
       bytes written by the runtime for those calls are the decimal rendering of the source output *)
    (exists outer inner, fst (run_x86 outer inner cs args) = o) /\
    (Forall (fun pz => in_i64 (snd pz)) (fst o) ->
     bytes_of_string (render_prints (fst o)) = flat_map runtime_bytes (fst o)).
Proof.
  intros p c f a cs nargs lc lc' args n o An Es Ba Hc Hpre Hwf Hf Hs Hok Hx Hrun OK.
  pose proof (out_ok_defined o OK) as D.
  destruct (chain_to_linear c f a args o OK) as (m & R);
    [exact (fun2core_correct p c args n o An Es Ba Hc Hrun D) | exact (focus_link focus_preserves c f args o Hpre Hwf Hf OK)
    |intros m R; exact (shrink_correct f a m args o Hs R (out_ok_final o OK)) | exact Hok |].
  split; [exact (x86_codegen_correct (linearize a) lc cs nargs lc' args m o Hx R D) | apply render_prints_is_runtime_output].
Qed.
End Pipeline.
