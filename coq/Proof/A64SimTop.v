(* C07, forward simulation of the AArch64 code generator: whole programs.
   Layout of the code image (`mk_image` of preamble ++ setup ++ translate ++ cleanup: the definitions'
   labels, the branch labels and `cleanup` resolve to the code emitted for them, given the label
   uniqueness that `asm_wf` checks on the real output), the prologue and the epilogue (the theorem
   Proof/A64Entry.v a64_entry_exit_ok: X19-X29 and the LINK REGISTER X30 are stored below the entry SP and
   reloaded by `cleanup`, so that `RET` finds the return marker although X30 served as the 13th variable's
   register in between), `a64_program_run` (a run of the entry body from the state the prologue leaves is a run
   of the routine: the part of the program-level theorems that does not depend on the fragment) and the theorem
   of the integer fragment, `a64_codegen_simulates_int`.  Mirrors Proof/X86SimTop.v. *)
From Coq Require Import List ZArith NArith String Bool Lia FMapPositive.
From SCC Require Import Lang.AxSyn Sem.AxSem Model.Backend Model.A64 Sem.A64Sem Model.LinCheck Proof.A64State
     Proof.A64Exec Proof.SubstGraph Proof.A64Subst Proof.A64Entry Proof.A64SimRel Proof.A64SimStmt
     Proof.A64SimAddr Proof.A64SimProg.
From SCC Require Import Sem.A64Wf.
From SCC Require Proof.BackendInv.
Import ListNotations.
Open Scope Z_scope.
Open Scope list_scope.

Lemma hash_name_is l : hash_name l = is_hash_label l.
Proof. reflexivity. Qed.
Lemma In_label_names_nh l cs : hash_name l = false -> In l (label_names cs) -> In l (defined_labels cs).
Proof.
  intros NH. unfold label_names, defined_labels. rewrite !in_flat_map. intros (c & Hc & Hl). exists c. split; auto.
  destruct c; try (now destruct Hl). destruct Hl as [<-|[]]. rewrite <- hash_name_is, NH. now left.
Qed.
Lemma build_labels_nh : forall cs i a im, NoDup (defined_labels cs) -> labels_at_nh (build cs i a im) i cs.
Proof.
  induction cs as [|c r IH]; intros i a im Hnd n l Hn NH; [destruct n; discriminate|].
  assert (Hnd' : NoDup (defined_labels r)).
  { cbn [defined_labels flat_map] in Hnd. apply NoDup_app_tail in Hnd. exact Hnd. }
  destruct n as [|n]; cbn [nth_error padd] in *.
  - inversion Hn; subst. cbn [build]. rewrite build_labels_old.
    + cbn [labels find_label]. now rewrite String.eqb_refl.
    + intros Hin. apply (In_label_names_nh l r NH) in Hin. cbn [defined_labels flat_map] in Hnd. rewrite <- hash_name_is, NH in Hnd.
      cbn [app] in Hnd. inversion Hnd; auto.
  - cbn [build]. eapply IH; eauto.
Qed.
Lemma first_dup_NoDup l : first_dup l = None -> NoDup l.
Proof.
  induction l as [|x l IH]; cbn [first_dup]; intros H; [constructor|].
  destruct (mem_str x l) eqn:M; [discriminate|]. constructor; auto.
  intros Hin. unfold mem_str in M. assert (existsb (String.eqb x) l = true); [|congruence].
  apply existsb_exists. exists x. split; auto. apply String.eqb_refl.
Qed.
Lemma asm_wf_labels cs : asm_wf cs = None -> NoDup (defined_labels cs).
Proof. unfold asm_wf. destruct (first_dup (defined_labels cs)) eqn:E; [discriminate|]. intros _. now apply first_dup_NoDup. Qed.
Theorem mk_image_layout cs :
  asm_wf cs = None -> code_at (mk_image cs) 1%positive cs /\ labels_at_nh (mk_image cs) 1%positive cs.
Proof. intros H. split; [intros n c; apply build_code_nth|apply build_labels_nh, asm_wf_labels, H]. Qed.

Lemma a64_compile_inv p lc cs n lc' :
  a64_compile p lc = Ok (cs, n, lc') ->
  exists d0 rest su is', pdefs p = d0 :: rest /\ n = List.length (dctx d0) /\ setup n = Ok su /\
    translate a64_backend (ptypes p) (pdefs p) lc = Ok (is', lc') /\ cs = preamble ++ su ++ is' ++ cleanup.
Proof.
  intros H. unfold a64_compile, a64_compile_with in H. inv_bind H [[is n0] lc0] CP. inv_bind H r RT. inversion H; subst r n0 lc0.
  change (a64_backend_with (fun _ => [])) with a64_backend in CP.
  unfold compile in CP. destruct (pdefs p) as [|d0 rest] eqn:PD; [discriminate|]. inv_bind CP [is' lc1] TR. inversion CP; subst is n lc'.
  unfold into_aarch64_routine in RT. inv_bind RT su SU. inversion RT. exists d0, rest, su, is'. auto.
Qed.

(* where `translate` puts the definitions *)
Lemma translate_defs types : forall defs lc code lc',
  translate a64_backend types defs lc = Ok (code, lc') ->
  forall d, In d defs ->
  exists pre lcd cd lcd' post,
    code = pre ++ LAB (show_ident (dname d) +++ "_") :: cd ++ post /\
    acs types (dbody d) (dctx d) lcd = Ok (cd, lcd').
Proof. exact (BackendInv.translate_defs a64_backend types). Qed.

Definition sp0 : Z := STACK_TOP - 2144.

Lemma init_state_facts args :
  (List.length args <= 7)%nat ->
  spv (init_state args) = Some STACK_TOP /\ xget (init_state args) 0 = Some HEAP_BASE /\
  (forall j, (1 <= j <= List.length args)%nat -> xget (init_state args) (N.of_nat j) = Some (nth (j - 1) args 0)) /\
  (forall r, In r callee_saved -> xget (init_state args) r = Some (callee_marker r)) /\
  xget (init_state args) LR = Some RET_MARKER /\ out (init_state args) = [].
Proof.
  intros LE.
  destruct args as [|a1 [|a2 [|a3 [|a4 [|a5 [|a6 [|a7 [|a8 rest]]]]]]]]; cbn [List.length] in LE; try lia.
  all: split; [reflexivity|]; split; [reflexivity|]; split;
    [intros j Hj; cbn [List.length] in Hj; destruct j as [|[|[|[|[|[|[|[|j]]]]]]]]; try lia; reflexivity|].
  all: split; [|split; reflexivity].
  all: intros r Hr; cbn in Hr; repeat (destruct Hr as [<-|Hr]; [reflexivity|]); destruct Hr.
Qed.

Lemma atpos_reg i : (i < 13)%nat -> atpos Snd i = Ok (AR (X (2 * N.of_nat i + 5))).
Proof.
  intros H. unfold tpos. cbn [b_temporary_from_position a64_backend a64_backend_with tnum_n]. unfold temporary_from_position.
  change RESERVED with 4%N. change REGISTER_NUM with 30%N.
  destruct (N.ltb_spec (2 * N.of_nat i + 1 + 4) 30); [|lia]. do 3 f_equal. lia.
Qed.

(* asm_main takes at most seven integer arguments *)
Lemma setup_arity n su : setup n = Ok su -> (n <= 7)%nat.
Proof.
  intros SU. destruct (Nat.le_gt_cases n 7) as [L|L]; [exact L|]. exfalso.
  unfold setup in SU. destruct n as [|k]; [lia|]. cbn [move_arguments] in SU. destruct (Nat.ltb_spec 7 (S k)); [discriminate|lia].
Qed.

Section Entry.
Variable im : image.

(* the prologue, from the entry state of asm_main *)
Lemma prologue_ok args su :
  setup (List.length args) = Ok su ->
  exists s, run_straight im su (init_state args) = MOk s /\
    frame_ok s sp0 /\ out s = [] /\ (exists f, rget s FREE = Some f) /\
    (forall i, (i < List.length args)%nat -> rget s (X (2 * N.of_nat i + 5)) = Some (nth i args 0)) /\
    (* and from every later state with the body's SP and the words above the spill area intact, the epilogue
       returns to the caller with the value of X0 *)
    forall pcc s2 z, code_at im pcc cleanup ->
      frame_ok s2 sp0 -> outer_ok (stack s) sp0 s2 -> rget s2 RETURN1 = Some z ->
      finishes im pcc s2 (finish (out s2) (OExit z)).
Proof.
  intros SU.
  pose proof (setup_arity _ _ SU) as LE.
  destruct (init_state_facts args LE) as (I1 & I2 & I3 & I4 & I5 & I6).
  destruct (a64_entry_exit_ok im (List.length args) su (init_state args) STACK_TOP HEAP_BASE SU I1) as
    (s1 & E1 & F1 & H1 & O1 & X0 & X1 & AR & K1 & EPI); [reflexivity|unfold STACK_LIMIT, STACK_TOP; lia|lia|exact I2|].
  exists s1. split; [exact E1|]. split; [exact F1|]. split; [congruence|].
  split; [change FREE with (X 1); cbn [rget]; eauto|]. split.
  - intros i Hi. cbn [rget]. replace (2 * N.of_nat i + 5)%N with (2 * N.of_nat (S i) + 3)%N by lia.
    rewrite AR by lia. rewrite I3 by lia. f_equal. f_equal. lia.
  - intros pcc s2 z CA (S2 & _) OK RV.
    destruct (EPI s2 S2) as (s3 & E3 & S3 & R3 & L3 & H3 & O3 & _).
    { intros k Hk. apply OK. unfold sp0. change SPILL_SPACE with 2048. lia. }
    assert (CL : cleanup = removelast cleanup ++ [RET]) by reflexivity.
    rewrite CL in CA. apply code_at_app in CA as [CA1 CA2]. apply code_at_cons in CA2 as [CR _].
    eapply exec_to_finishes; [apply (run_straight_exec_to im _ pcc s2 s3 CA1 E3)|].
    assert (ST : step im RET s3 = Done s3).
    { cbn [step]. rewrite (R3 LR) by (unfold LR; lia). rewrite I5. reflexivity. }
    pose proof (finishes_done im _ RET s3 _ CR ST) as FD.
    replace (finish (out s2) (OExit z)) with (finish (out s3) (final_check s3)); [exact FD|].
    rewrite O3. f_equal. unfold final_check. rewrite S3, Z.eqb_refl. cbn [negb].
    assert (CS : forallb (fun r => match xget s3 r with Some v => v =? callee_marker r | None => false end) callee_saved = true).
    { apply forallb_forall. intros r Hr. rewrite R3.
      - rewrite (I4 r Hr). apply Z.eqb_refl.
      - cbn in Hr. repeat (destruct Hr as [<-|Hr]; [lia|]). destruct Hr. }
    rewrite CS. cbn [negb]. rewrite L3 by lia. change RETURN1 with (X 0) in RV. cbn [rget] in RV. now rewrite RV.
Qed.
End Entry.

Lemma prologue_only im args su :
  setup (List.length args) = Ok su ->
  exists s, run_straight im su (init_state args) = MOk s /\
    frame_ok s sp0 /\ out s = [] /\ (exists f, rget s FREE = Some f) /\
    (forall i, (i < List.length args)%nat -> rget s (X (2 * N.of_nat i + 5)) = Some (nth i args 0)).
Proof. intros SU. destruct (prologue_ok im args su SU) as (s & A & B & C & D & E & _). eauto 8. Qed.
Lemma epilogue_ok im args su s pcc s2 z :
  setup (List.length args) = Ok su -> run_straight im su (init_state args) = MOk s ->
  code_at im pcc cleanup -> frame_ok s2 sp0 -> outer_ok (stack s) sp0 s2 -> rget s2 RETURN1 = Some z ->
  finishes im pcc s2 (finish (out s2) (OExit z)).
Proof.
  intros SU E. destruct (prologue_ok im args su SU) as (s' & A & _ & _ & _ & _ & EPI).
  assert (s' = s) by congruence. subst s'. apply EPI.
Qed.

Lemma entry_rel CL c0 args e0 s :
  bind (vars c0) (map VInt args) = Some e0 -> NoDup (ids c0) -> ctx_int c0 = true -> (List.length args <= 7)%nat ->
  args_i64 args = true ->
  frame_ok s sp0 -> (exists f, rget s FREE = Some f) ->
  (forall i, (i < List.length args)%nat -> rget s (X (2 * N.of_nat i + 5)) = Some (nth i args 0)) ->
  rel CL c0 e0 s sp0.
Proof.
  intros BD ND CI LE AI F FR RG. split; auto.
  - unfold sp0, STACK_LIMIT, STACK_TOP. lia.
  - unfold env_ids. rewrite <- (map_map fst idn), (bind_ids _ _ _ BD). unfold vars, ids. now rewrite map_map.
  - intros i x v Hi. destruct (bind_nth _ _ _ _ _ _ BD Hi) as (Hx & Hv).
    rewrite nth_error_map in Hv. destruct (nth_error args i) as [a|] eqn:Ha; [|discriminate]. cbn in Hv. inversion Hv; subst v.
    unfold vars in Hx. rewrite nth_error_map in Hx. destruct (nth_error c0 i) as [b|] eqn:Hb; [|discriminate].
    assert (Li : (i < List.length args)%nat) by (apply nth_error_Some; congruence).
    destruct (ctx_int_nth c0 i b CI Hb) as (K & T).
    exists b. split; [reflexivity|].
    apply (vrep_int CL s sp0 i b a (AR (X (2 * N.of_nat i + 5))) K T); [apply atpos_reg; lia| |].
    + cbn [lget]. rewrite (RG i Li). f_equal. now apply nth_error_nth.
    + apply lit_i64_in64. unfold args_i64 in AI. rewrite forallb_forall in AI. apply AI. eapply nth_error_In; eauto.
Qed.

Lemma layout_at im cs a b c :
  code_at im 1%positive cs -> labels_at_nh im 1%positive cs -> cs = a ++ b ++ c ->
  code_at im (padd 1%positive (List.length a)) b /\ labels_at_nh im (padd 1%positive (List.length a)) b.
Proof. apply placed_mid. Qed.

(* The layout of a compiled program, whatever the fragment: asm_main runs the prologue and falls into the entry
   definition; every definition and `cleanup` are placed; so a run of the entry body from the state the prologue
   leaves is a run of the whole routine. *)
Theorem a64_program_run p lc cs n lc' args fuel :
  plain_names p = true -> a64_compile p lc = Ok (cs, n, lc') -> asm_wf cs = None -> List.length args = n ->
  (forall d0 e0 s1 pc c0 lc0,
     hd_error (pdefs p) = Some d0 -> entry_env d0 args = Some e0 -> (List.length args <= 7)%nat ->
     (exists su, setup (List.length args) = Ok su /\ run_straight (mk_image cs) su (init_state args) = MOk s1) ->
     defs_placed (mk_image cs) p -> cleanup_placed (mk_image cs) sp0 (stack s1) ->
     frame_ok s1 sp0 -> out s1 = [] -> (exists f, rget s1 FREE = Some f) ->
     (forall i, (i < List.length args)%nat -> rget s1 (X (2 * N.of_nat i + 5)) = Some (nth i args 0)) ->
     acs (ptypes p) (dbody d0) (dctx d0) lc = Ok (c0, lc0) ->
     code_at (mk_image cs) pc c0 -> labels_at_nh (mk_image cs) pc c0 ->
     finishes (mk_image cs) pc s1 (exec_linear fuel p e0 (dbody d0) [])) ->
  exists outer inner, fst (run_a64 outer inner cs args) = run_linear fuel p args.
Proof.
  intros PL XC WF. destruct (a64_compile_inv p lc cs n lc' XC) as (d0 & rest & su & is' & PD & -> & SU & TR & ->).
  rewrite PD in TR. intros NARGS BODY. unfold run_linear. rewrite PD.
  destruct (bind_total (vars (dctx d0)) (map VInt args)) as (e0 & EE); [unfold vars; rewrite !map_length; auto|].
  unfold entry_env at 1. rewrite EE.
  assert (LE7 : (List.length args <= 7)%nat) by (rewrite NARGS; exact (setup_arity _ _ SU)).
  set (cs := preamble ++ su ++ is' ++ cleanup) in *.
  set (im := mk_image cs) in *.
  destruct (mk_image_layout cs WF) as [CA LA]. fold im in CA, LA.
  assert (DEFS : defs_placed im p).
  { intros d Hd. rewrite PD in Hd.
    destruct (translate_defs (ptypes p) _ _ _ _ TR d Hd) as (pre & lcd & cd & lcd' & post & EQ & CD).
    assert (NH : hash_name (show_ident (dname d) +++ "_") = false).
    { unfold plain_names in PL. rewrite forallb_forall in PL. rewrite <- PD in Hd. specialize (PL d Hd).
      destruct (hash_name (show_ident (dname d) +++ "_")) eqn:E; auto.
      apply hash_name_app_ in E. rewrite E in PL. discriminate. }
    destruct (layout_at im cs (preamble ++ su ++ pre) (LAB (show_ident (dname d) +++ "_") :: cd) (post ++ cleanup) CA LA)
      as [CAd LAd].
    { unfold cs. rewrite EQ. rewrite <- !app_assoc. cbn [app]. rewrite <- !app_assoc. reflexivity. }
    exists (padd 1%positive (List.length (preamble ++ su ++ pre))), lcd, cd, lcd'.
    apply code_at_cons in CAd as [C0 C1].
    change (LAB (show_ident (dname d) +++ "_") :: cd) with ([LAB (show_ident (dname d) +++ "_")] ++ cd) in LAd.
    pose proof LAd as LAd'. apply labels_at_nh_app in LAd' as [_ L1]. cbn [List.length padd] in L1.
    split; [exact (LAd O _ eq_refl NH)|]. split; [exact C0|]. split; [exact CD|]. split; [exact C1|exact L1]. }
  assert (FIN : finishes im 3%positive (init_state args) (exec_linear fuel p e0 (dbody d0) [])).
  { destruct (layout_at im cs [TEXT; GLOBAL "asm_main"] [LAB "asm_main"] (su ++ is' ++ cleanup) CA LA eq_refl) as [CA0 _].
    destruct (layout_at im cs preamble su (is' ++ cleanup) CA LA eq_refl) as [CA1 _].
    cbn [List.length padd preamble] in CA0, CA1.
    rewrite <- NARGS in SU. destruct (prologue_ok im args su SU) as (s1 & E1 & F1 & O1 & FR1 & RG1 & EPI).
    assert (CLEAN : cleanup_placed im sp0 (stack s1)).
    { destruct (layout_at im cs (preamble ++ su ++ is') cleanup [] CA LA) as [CAc LAc].
      { unfold cs. rewrite app_nil_r, <- !app_assoc. reflexivity. }
      exists (padd 1%positive (List.length (preamble ++ su ++ is'))). split.
      - exact (LAc O "cleanup"%string eq_refl eq_refl).
      - intros s z Fs OKs RV. eapply EPI; eauto. }
    (* the entry definition follows the prologue *)
    cbn [translate] in TR. inv_bind TR [c0 lc0] C0. inv_bind TR [c2 lc2] TR2.
    cbn [b_label a64_backend a64_backend_with] in TR. inversion TR; subst is'; clear TR.
    destruct (layout_at im cs (preamble ++ su) (LAB (show_ident (dname d0) +++ "_") :: c0) (c2 ++ cleanup) CA LA) as [CAe LAe].
    { unfold cs. rewrite <- !app_assoc. cbn [app]. rewrite <- !app_assoc. reflexivity. }
    apply code_at_cons in CAe as [CL CAe].
    change (LAB (show_ident (dname d0) +++ "_") :: c0) with ([LAB (show_ident (dname d0) +++ "_")] ++ c0) in LAe.
    apply labels_at_nh_app in LAe as [_ LAe]. cbn [List.length padd] in LAe.
    rewrite app_length in CL. cbn [List.length preamble] in CL. rewrite padd_add in CL. cbn [padd] in CL.
    eapply exec_to_finishes.
    { eapply exec_next; [apply (CA0 O _ eq_refl)|reflexivity|].
      eapply exec_to_trans; [apply (run_straight_exec_to im su _ _ s1 CA1 E1)|].
      eapply exec_next; [exact CL|reflexivity|apply exec_refl]. }
    exact (BODY d0 e0 s1 _ c0 lc0 (f_equal (@hd_error def) PD) EE LE7 (ex_intro _ su (conj SU E1)) DEFS CLEAN F1 O1 FR1 RG1 C0 CAe LAe). }
  destruct (finishes_run im _ _ _ FIN) as (outer & inner & RN).
  exists outer, inner. unfold run_a64. cbv zeta. change (mk_image _) with im.
  assert (AM : find_label (labels im) "asm_main" = Some 3%positive).
  { exact (LA 2%nat "asm_main"%string eq_refl eq_refl). }
  rewrite AM. destruct (Nat.ltb_spec 7 (List.length args)); [lia|]. exact RN.
Qed.

Theorem a64_codegen_simulates_int p lc cs n lc' args fuel o :
  int_frag p = true -> plain_names p = true -> lits_i64 p = true -> lin_check_prog p = true ->
  a64_compile p lc = Ok (cs, n, lc') -> asm_wf cs = None ->
  List.length args = n -> args_i64 args = true ->
  run_linear fuel p args = o -> snd o <> OOutOfFuel ->
  exists outer inner, fst (run_a64 outer inner cs args) = o.
Proof.
  intros INT PL LITS LIN XC WF NARGS AI <- G.
  apply (a64_program_run p lc cs n lc' args fuel PL XC WF NARGS).
  intros d0 e0 s1 pc c0 lc0 HD EE LE7 _ DEFS CLEAN F1 O1 FR1 RG1 C0 CA LA.
  unfold run_linear in G. destruct (pdefs p) as [|d rest] eqn:PD; [discriminate|]. inversion HD; subst d. rewrite EE in G.
  assert (D0 : In d0 (pdefs p)) by (rewrite PD; now left).
  pose proof (proj1 (forallb_forall _ _) LIN) as LINd. pose proof (proj1 (forallb_forall _ _) INT) as INTd.
  pose proof (proj1 (forallb_forall _ _) LITS) as LITd.
  destruct (proj1 (andb_true_iff _ _) (INTd d0 D0)) as [I1 I2].
  assert (R0 : rel (fun _ _ _ => False) (dctx d0) e0 s1 sp0).
  { eapply entry_rel; eauto. eapply lin_nodup. exact (LINd d0 D0). }
  apply (sim_exec (mk_image cs) p sp0 (fun _ _ _ => False) (stack s1) DEFS CLEAN LINd INTd LITd fuel (dbody d0) (dctx d0) e0 []
           s1 pc c0 lc lc0 I2 (LITd d0 D0) I1 (LINd d0 D0) C0 CA LA R0 (fun k _ => eq_refl) O1 G).
Qed.

(* the arity of a run that ends with a result or an undefined operation is right *)
Lemma a64_compile_arity p lc cs n lc' args fuel o :
  a64_compile p lc = Ok (cs, n, lc') -> run_linear fuel p args = o -> good o -> List.length args = n.
Proof.
  intros XC RUN G. destruct (a64_compile_inv p lc cs n lc' XC) as (d0 & rest & _ & _ & PD & -> & _).
  unfold run_linear in RUN. rewrite PD in RUN.
  destruct (entry_env d0 args) as [e0|] eqn:EE; [|subst o; exfalso; destruct G as [(z & H)|(z & H)]; discriminate].
  unfold entry_env in EE. apply bind_length in EE. unfold vars in EE. rewrite !map_length in EE. auto.
Qed.

Corollary a64_codegen_correct_int p lc cs n lc' args fuel o :
  int_frag p = true -> plain_names p = true -> lits_i64 p = true -> lin_check_prog p = true -> asm_wf cs = None ->
  a64_compile p lc = Ok (cs, n, lc') -> args_i64 args = true ->
  run_linear fuel p args = o -> defined o = true ->
  exists outer inner, fst (run_a64 outer inner cs args) = o.
Proof.
  intros I P L LC W X A R D.
  assert (G : good o) by (left; unfold defined in D; destruct (snd o); try discriminate; eauto).
  eapply a64_codegen_simulates_int; eauto; [eapply a64_compile_arity; eauto|apply good_not_oof; exact G].
Qed.
