(* Proof/Fun2CoreFLd  -  the call of a top-level definition, clause selection, the kinds of the values
   bound to a context. *)
From Coq Require Import List ZArith NArith String Bool Lia.
From SCC Require Import Proof.CoreInd.
From SCC Require Import Base.Sexp Lang.SynUtil Lang.FunSyn Lang.FunTy Lang.CoreSyn.
From SCC Require Import Sem.AxSem Sem.CoreSem Sem.FunSem Model.Fun2Core.
From SCC Require Import Proof.Fun2CoreProof Proof.Fun2CoreSim Proof.Fun2CoreTfv Proof.Fun2CoreInv Proof.Fun2CoreUB
     Proof.Fun2CoreRel Proof.Fun2CoreFLa Proof.Fun2CoreFLb Proof.Fun2CoreFLc.
Import ListNotations.
Open Scope string_scope.
Open Scope list_scope.

Lemma rev_append_twice_app : forall X (l a : list X), rev_append (rev_append l []) a = l ++ a.
Proof. intros X l a. rewrite !rev_append_rev, app_nil_r, rev_involutive. reflexivity. Qed.

Section FLd.
  Variable p : fcprog.
  Variable cp : cprog.
  Hypothesis Hcod : cpcodata cp = codata_of p.
  Hypothesis Hdefs : forall f d, ffind_def p f = Some d -> (f <> "main" \/ calls_main_prog p = true) -> callee_ok p cp d.

  Lemma chi_kind_list : forall (l1 l2 : list (fchi * bool)), list_eqb (chi_kind_eqb) l1 l2 = true -> l1 = l2.
  Proof.
    induction l1 as [|[c1 k1] r IH]; intros [|[c2 k2] r2]; simpl; intros H; try discriminate; [reflexivity|].
    apply andb_prop in H. destruct H as [H1 H2]. apply IH in H2. subst. unfold chi_kind_eqb in H1. simpl in H1.
    apply andb_prop in H1. destruct H1 as [Hc Hk]. apply Bool.eqb_prop in Hk. subst.
    destruct c1, c2; simpl in Hc; try discriminate; reflexivity.
  Qed.

  Lemma kinds_of_call : forall new args ctx,
    Forall2 (fun b y => okb p false y b /\ fkind b = compile_chi (arg_chi y)) new args ->
    map (fun y => (arg_chi y, tkind p y)) args = map (fun b => (fbchi b, f_is_codata p (fbty b))) ctx ->
    map fkind new = map (fun b => compile_chi (fbchi b)) ctx /\
    Forall2 (fun v b => vok (is_codata cp (compile_ty (fbty b))) v) new ctx.
  Proof.
    intros new args ctx H. revert ctx. induction H as [|b y r r' [Hb1 Hb2] Hr IH]; intros ctx E.
    - destruct ctx; [|discriminate]. split; constructor.
    - destruct ctx as [|c0 cr]; [discriminate|]. simpl in E. injection E as E1 E2 E3.
      destruct (IH cr E3) as [IH1 IH2]. split.
      + simpl. rewrite Hb2, E1, IH1. reflexivity.
      + constructor; [|exact IH2]. rewrite (is_codata_compile p cp Hcod), <- E2. exact Hb1.
  Qed.

  Lemma call_finish : forall N, (forall N', (N' < N)%nat -> forall t, flw p cp N' t) ->
    forall j, (j <= N)%nat -> forall f args ret e ce k cont new new',
    (f <> "main" \/ calls_main_prog p = true) -> call_kinds p f args ret = true ->
    Forall2 (brel p cp j) new new' ->
    Forall2 (fun b y => okb p false y b /\ fkind b = compile_chi (arg_chi y)) new args ->
    cont_shape cp (f_is_codata_o p ret) cont -> KS p cp j (f_is_codata_o p ret) k cont ce ->
    sim p cp j (FArgs (rev_append new []) [] e (AfCall f) k)
               (cargs_res cp (rev_append new' []) [CConsumer cont] ce (FinCall (new_id f))).
  Proof.
    intros N IHN j Hj f args ret e ce k cont new new' Hnm Hck Hnew Hkinds Hsh HKS.
    destruct j as [|j1]; [apply sim_zero|].
    destruct (ffind_def p f) as [d|] eqn:Ed;
      [|eapply sim_stuck; simpl; rewrite Ed; reflexivity].
    destruct (fbind (fvars (fdctx d)) new []) as [e'|] eqn:Eb;
      [|eapply sim_stuck; simpl; rewrite rev_append_nil_twice, Ed, Eb; reflexivity].
    eapply sim_fstep; [simpl; rewrite rev_append_nil_twice, Ed, Eb; reflexivity|].
    assert (Hname : fdname d = f).
    { unfold ffind_def in Ed. apply find_some in Ed. destruct Ed as [_ Ed]. apply String.eqb_eq in Ed. exact Ed. }
    destruct (Hdefs f d Ed Hnm) as [a [body [st [st' [ty [Hwc [Ha [Hab [Hac [Hctx [Hbnd [Hl [Hfind [Hf [Hws [Hkd Hkb]]]]]]]]]]]]]]]].
    unfold cargs_res. apply sim_cstep.
    destruct (KS_arg p cp _ _ _ _ ce (MArgs (rev_append new' []) [] ce (FinCall (new_id f))) Hsh HKS) as [kv [Hreach Hkk]].
    eapply sim_rreach; [|exact Hreach].
    apply sim_cstep. rewrite cstep_app_margs. unfold cargs_res.
    change (rev_append (BK kv :: rev_append new' []) []) with (rev_append (rev_append new' []) [BK kv]).
    rewrite rev_append_twice_app.
    unfold call_kinds in Hck. rewrite Ed in Hck. apply andb_prop in Hck. destruct Hck as [Hck Hret].
    apply chi_kind_list in Hck. apply Bool.eqb_prop in Hret.
    destruct (kinds_of_call _ _ _ Hkinds Hck) as [Hk1 Hk2].
    destruct (erel_binds p cp j1 [] (fdctx d) (Sof (fvs body)) (fun _ => True) new new' [] [(new_id a, BK kv)] e')
      as [ce1 [Hc [Hr Hlk]]].
    - eapply brels_mono; [exact Hnew | lia].
    - exact Hk2.
    - exact Hk1.
    - exact Eb.
    - intros bb Hg. simpl in Hg. discriminate.
    - intros x _ _. exact I.
    - simpl finish_args. rewrite <- Hname, Hfind. cbn [cdctx cdbody].
      unfold cvars. rewrite map_app. simpl map. fold (cvars (compile_ctx (fdctx d))).
      rewrite (cbind_snoc _ _ _ _ _ _ Hc).
      rewrite app_nil_r in Hr.
      assert (Hj1 : (j1 < N)%nat) by lia.
      apply (IHN j1 Hj1 (fdbody d) j1 (Nat.le_refl j1) (compile_ctx (fdctx d)) (fdname d)
                 (CXVar CCns (new_id a) ty) st body st' e' ce1 k Hwc Hf Hkd Hws Hl).
      + intros bb Hb. destruct (in_compile_ctx _ _ Hb) as [y [Ey Hy]]. exists y. split; [exact Ey | apply Hctx; exact Hy].
      + exact Hbnd.
      + intros x Hx. simpl in Hx. destruct Hx as [Hx|[]]. subst x. exists a. split; [reflexivity | exact Ha].
      + exact I.
      + exact Hr.
      + apply CK_covar with (kv := kv).
        * rewrite Hlk.
          -- rewrite clookup_cons, cident_eqb_refl. reflexivity.
          -- intros Hin. destruct (in_cvars_compile_ctx _ _ Hin) as [y [Ey Hy]]. apply new_id_inj in Ey. subst y. exact (Hac Hy).
        * rewrite Hkb, <- Hret. eapply Kk_mono; [exact Hkk | lia].
  Qed.

  Lemma clauses_find : forall cur cont1 cls st cls' st',
    clauses_with (fun b => wc (codata_of p) cur false b) cont1 cls st = Ok (cls', st') ->
    forall tag,
    match ffind_clause cls tag with
    | None => cfind_clause cls' (new_id tag) = None
    | Some (FClause pl x names ctx body) =>
        exists body' sta stb,
          cfind_clause cls' (new_id tag) = Some (CClause CCns (new_id x) (compile_ctx ctx) body') /\
          wc (codata_of p) cur false body cont1 sta = Ok (body', stb) /\
          grows st sta /\ grows stb st' /\
          (forall bb, In bb (fvs body') -> ~ In bb (compile_ctx ctx) -> In bb (fvc cls')) /\
          In (FClause pl x names ctx body) cls
    end.
  Proof.
    intros cur cont1. induction cls as [|c r IH]; intros st cls' st' H tag.
    - simpl in H. apply mret_inv in H. destruct H; subst. reflexivity.
    - destruct c as [pl x names ctx body]. apply clauses_with_cons_inv in H.
      destruct H as [c' [st1 [rest [Hc [Hrest El]]]]]. subst cls'.
      apply compile_clause_inv in Hc. destruct Hc as [body' [Hbody Ec]]. subst c'.
      assert (Hg1 : grows st st1) by (eapply wc_grows; exact Hbody).
      assert (Hg2 : grows st1 st') by (eapply clauses_with_grows; exact Hrest).
      unfold ffind_clause, cfind_clause. simpl. rewrite cid_eqb_new_id.
      destruct (String.eqb x tag) eqn:E.
      + exists body', st, st1. split; [reflexivity|]. split; [exact Hbody|]. split; [apply grows_refl|].
        split; [exact Hg2|]. split; [|left; reflexivity].
        intros bb Hb Hn. apply fvc_cons_body; assumption.
      + specialize (IH _ _ _ Hrest tag). unfold ffind_clause, cfind_clause in IH.
        destruct (find (fun c => String.eqb (fcl_xtor c) tag) r) as [[pl0 x0 names0 ctx0 body0]|].
        * destruct IH as [b' [sta [stb [E1 [E2 [E3 [E4 [E5 E6]]]]]]]]. exists b', sta, stb.
          split; [exact E1|]. split; [exact E2|]. split; [eapply grows_trans; eauto|]. split; [exact E4|].
          split; [|right; exact E6].
          intros bb Hb Hn. apply fvc_cons_tail. apply E5; assumption.
        * exact IH.
  Qed.

  Lemma kinds_of_fields : forall ctx fields e e1,
    Forall dfield fields -> ctx_data p ctx = true ->
    fbind (fvars ctx) fields e = Some e1 ->
    map fkind fields = map (fun b => compile_chi (fbchi b)) ctx /\
    Forall2 (fun v b => vok (is_codata cp (compile_ty (fbty b))) v) fields ctx.
  Proof.
    induction ctx as [|c0 cr IH]; intros fields e e1 Hd Hp Hb; destruct fields as [|b fr]; simpl in Hb; try discriminate.
    - split; constructor.
    - destruct (fbind (fvars cr) fr e) as [er|] eqn:Er; [|discriminate].
      inversion Hd as [|? ? Hd1 Hd2]; subst. unfold ctx_data in Hp. simpl in Hp. apply andb_prop in Hp. destruct Hp as [Hp1 Hp2].
      apply andb_prop in Hp1. destruct Hp1 as [Hprd Hdata]. apply negb_true_iff in Hdata.
      destruct (IH fr e er Hd2 Hp2 Er) as [IH1 IH2]. split.
      + simpl. rewrite IH1. f_equal. destruct b as [v|k0]; [|contradiction]. destruct (fbchi c0); [reflexivity | discriminate].
      + constructor; [|exact IH2]. rewrite (is_codata_compile p cp Hcod), Hdata.
        destruct b as [v|k0]; [exact Hd1 | contradiction].
  Qed.

  (* the fields of a data value bound to the parameters of a clause (or the entry values to those of main) *)
  Lemma clause_env : forall j G ctx fields fields' e e1 ce (S : cident -> Prop),
    Forall2 (brel p cp j) fields fields' -> Forall dfield fields -> ctx_data p ctx = true ->
    fbind (fvars ctx) fields e = Some e1 ->
    erel p cp j G (fun x => S x /\ ~ In x (cvars (compile_ctx ctx))) e ce ->
    exists ce1, cbind (cvars (compile_ctx ctx)) fields' ce = Some ce1 /\
                erel p cp j (compile_ctx ctx ++ G) S e1 ce1 /\
                (forall x, ~ In x (cvars (compile_ctx ctx)) -> clookup ce1 x = clookup ce x).
  Proof.
    intros j G ctx fields fields' e e1 ce S Hrel Hd Hp Hb He.
    destruct (kinds_of_fields ctx fields e e1 Hd Hp Hb) as [Hk1 Hk2].
    eapply erel_binds; eauto. intros x Hx Hn. split; assumption.
  Qed.
End FLd.
