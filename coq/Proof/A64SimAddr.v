(* C07, forward simulation of the AArch64 code generator: byte addresses in the code image.  `mk_image` gives every
   instruction an address (4 bytes per instruction, 0 for labels and directives), and `index_at` maps the
   address of an instruction of non-zero size back to it (labels in front of it share its address and are
   skipped by an indirect branch).  What the closure and jump-table code needs: consecutive instructions have
   consecutive addresses, the address of a label is the address of the instruction index it names, and `BR`
   to the address of an index lands on the first real instruction at or after it.
   Mirrors Proof/X86SimAddr.v (there `index_at` keeps the FIRST index placed at an address). *)
From Coq Require Import List ZArith NArith String Bool Lia FMapPositive.
From SCC Require Import Model.A64 Sem.A64Sem Proof.A64State Proof.A64Exec Proof.A64SimRel.
From SCC Require Export Proof.A64MemTop.
Import ListNotations.
Open Scope Z_scope.
Open Scope list_scope.

Lemma isize_nonneg c : 0 <= isize c.
Proof. destruct c; cbn; lia. Qed.
Lemma padd_inj pc a b : padd pc a = padd pc b -> a = b.
Proof.
  assert (E : forall j p, Zpos (padd p j) = Zpos p + Z.of_nat j).
  { induction j as [|j IH]; intros p; cbn [padd]; [lia|]. rewrite IH. lia. }
  intros H. apply (f_equal Zpos) in H. rewrite !E in H. lia.
Qed.

Record img_ok (im : image) : Prop := {
  io_addr : forall pc c, PM.find pc (code im) = Some c -> exists a, PM.find pc (addr_of im) = Some a /\ CODE_BASE <= a;
  io_next : forall pc c c' a, PM.find pc (code im) = Some c -> PM.find (Pos.succ pc) (code im) = Some c' ->
            PM.find pc (addr_of im) = Some a -> PM.find (Pos.succ pc) (addr_of im) = Some (a + isize c);
  io_index : forall pc c a, PM.find pc (code im) = Some c -> 0 < isize c -> PM.find pc (addr_of im) = Some a ->
             PM.find (key a) (index_at im) = Some pc
}.

Fixpoint size_of (cs : list acode) : Z := match cs with [] => 0 | c :: r => isize c + size_of r end.
Lemma size_of_nonneg cs : 0 <= size_of cs.
Proof. induction cs as [|c r IH]; cbn; [lia|]. pose proof (isize_nonneg c). lia. Qed.

Lemma build_addr_lt : forall cs i a im j, (j < i)%positive -> PM.find j (addr_of (build cs i a im)) = PM.find j (addr_of im).
Proof.
  induction cs as [|c r IH]; cbn [build]; intros i a im j Hj; [reflexivity|].
  rewrite IH by lia. cbn. apply PM.gso. lia.
Qed.
Lemma build_code_inv : forall cs i a im j c,
  PM.find j (code (build cs i a im)) = Some c ->
  PM.find j (code im) = Some c \/ exists n, j = padd i n /\ nth_error cs n = Some c.
Proof.
  induction cs as [|c0 r IH]; intros i a im j c H; cbn [build] in H; [now left|].
  apply IH in H as [H|(n & -> & Hn)].
  - cbn [code] in H. destruct (Pos.eq_dec j i) as [->|NE].
    + rewrite PM.gss in H. inversion H; subst. right. exists O. auto.
    + rewrite PM.gso in H by exact NE. now left.
  - right. exists (S n). auto.
Qed.
Lemma build_addr_nth : forall cs i a im n c,
  nth_error cs n = Some c -> PM.find (padd i n) (addr_of (build cs i a im)) = Some (a + size_of (firstn n cs)).
Proof.
  induction cs as [|c0 r IH]; intros i a im n c Hn; [destruct n; discriminate|].
  destruct n; cbn [nth_error padd build firstn size_of] in *.
  - rewrite build_addr_lt by lia. cbn. rewrite PM.gss. f_equal. lia.
  - erewrite IH by eassumption. f_equal. lia.
Qed.
(* an entry of index_at survives the placement of instructions at greater addresses *)
Lemma build_index_keep : forall cs i a im a0 v,
  0 <= a0 < a -> PM.find (key a0) (index_at im) = Some v -> PM.find (key a0) (index_at (build cs i a im)) = Some v.
Proof.
  induction cs as [|c0 r IH]; intros i a im a0 v H0 H; cbn [build]; [exact H|].
  pose proof (isize_nonneg c0). apply IH; [lia|]. cbn [index_at]. destruct (isize c0 =? 0); [exact H|].
  rewrite PM.gso; [exact H|]. intros K. apply key_inj in K; lia.
Qed.
Lemma build_index_nth : forall cs i a im n c,
  0 <= a -> nth_error cs n = Some c -> 0 < isize c ->
  PM.find (key (a + size_of (firstn n cs))) (index_at (build cs i a im)) = Some (padd i n).
Proof.
  induction cs as [|c0 r IH]; intros i a im n c Ha Hn Hc; [destruct n; discriminate|].
  destruct n as [|n]; cbn [nth_error padd build firstn size_of] in *.
  - inversion Hn; subst c0. rewrite Z.add_0_r. apply build_index_keep; [lia|]. cbn [index_at].
    destruct (Z.eqb_spec (isize c) 0); [lia|]. apply PM.gss.
  - pose proof (isize_nonneg c0). rewrite Z.add_assoc. apply (IH (Pos.succ i) (a + isize c0) _ n c); auto. lia.
Qed.

Lemma firstn_S_size cs : forall n c, nth_error cs n = Some c -> size_of (firstn (S n) cs) = size_of (firstn n cs) + isize c.
Proof.
  induction cs as [|c0 r IH]; intros n c H; [destruct n; discriminate|].
  destruct n as [|n]; cbn [nth_error] in H.
  - inversion H; subst. cbn. lia.
  - change (firstn (S (S n)) (c0 :: r)) with (c0 :: firstn (S n) r). change (firstn (S n) (c0 :: r)) with (c0 :: firstn n r).
    cbn [size_of]. rewrite (IH n c H). lia.
Qed.

Theorem mk_image_ok cs : img_ok (mk_image cs).
Proof.
  assert (INV : forall j c, PM.find j (code (mk_image cs)) = Some c -> exists n, j = padd 1%positive n /\ nth_error cs n = Some c).
  { intros j c H. apply build_code_inv in H as [H|H]; [|exact H]. cbn in H. rewrite PM.gempty in H. discriminate. }
  split.
  - intros pc c H. destruct (INV pc c H) as (n & -> & Hn). eexists. split; [apply (build_addr_nth cs _ _ _ n c Hn)|].
    pose proof (size_of_nonneg (firstn n cs)). lia.
  - intros pc c c' a H H' A. destruct (INV pc c H) as (n & -> & Hn). destruct (INV _ c' H') as (n' & E & Hn').
    rewrite <- padd_succ in E. apply padd_inj in E. subst n'.
    unfold mk_image in *. rewrite (build_addr_nth cs _ _ _ n c Hn) in A. assert (EA : a = CODE_BASE + size_of (firstn n cs)) by congruence. subst a. clear A.
    rewrite <- padd_succ. rewrite (build_addr_nth cs _ _ _ (S n) c' Hn'). f_equal. rewrite (firstn_S_size cs n c Hn). lia.
  - intros pc c a H SZ A. destruct (INV pc c H) as (n & -> & Hn).
    unfold mk_image in *. rewrite (build_addr_nth cs _ _ _ n c Hn) in A. assert (EA : a = CODE_BASE + size_of (firstn n cs)) by congruence. subst a. clear A.
    apply (build_index_nth cs _ CODE_BASE _ n c); [unfold CODE_BASE; lia|exact Hn|exact SZ].
Qed.

(* the address of a label is the address of the instruction index it resolves to *)
Lemma label_addr_at im l i a :
  find_label (labels im) l = Some i -> PM.find i (addr_of im) = Some a -> label_addr im l = Some a.
Proof. intros H A. unfold label_addr. now rewrite H. Qed.

Lemma addr_along im (IO : img_ok im) : forall cs pc a,
  code_at im pc cs -> PM.find pc (addr_of im) = Some a ->
  forall n c, nth_error cs n = Some c -> PM.find (padd pc n) (addr_of im) = Some (a + size_of (firstn n cs)).
Proof.
  induction cs as [|c0 r IH]; intros pc a CA A n c Hn; [destruct n; discriminate|].
  apply code_at_cons in CA as [C0 CA].
  destruct n as [|n]; cbn [nth_error padd firstn size_of] in *; [rewrite A; f_equal; lia|].
  destruct r as [|c1 r']; [destruct n; discriminate|].
  pose proof CA as CA'. apply code_at_cons in CA' as [C1 _].
  pose proof (io_next im IO pc c0 c1 a C0 C1 A) as A1.
  rewrite (IH (Pos.succ pc) (a + isize c0) CA A1 n c Hn). f_equal. lia.
Qed.

(* BR to the address of index pc lands on the first instruction of non-zero size at or after pc: the j
   labels / directives in front of it are skipped *)
Lemma land im (IO : img_ok im) cs pc a j c :
  code_at im pc cs -> PM.find pc (addr_of im) = Some a ->
  size_of (firstn j cs) = 0 -> nth_error cs j = Some c -> 0 < isize c ->
  PM.find (key a) (index_at im) = Some (padd pc j).
Proof.
  intros CA A Z0 Hj SZ.
  pose proof (addr_along im IO cs pc a CA A j c Hj) as AJ. rewrite Z0, Z.add_0_r in AJ.
  exact (io_index im IO _ c a (CA j c Hj) SZ AJ).
Qed.
(* running over labels and directives changes nothing: a run that ends from their start ends from their end *)
Lemma finishes_skip im : forall cs pc s o,
  code_at im pc cs -> size_of cs = 0 -> finishes im pc s o -> finishes im (padd pc (List.length cs)) s o.
Proof.
  induction cs as [|c r IH]; intros pc s o CA Z0 FIN; [exact FIN|].
  apply code_at_cons in CA as [C0 CA]. cbn [size_of] in Z0. pose proof (isize_nonneg c). pose proof (size_of_nonneg r).
  cbn [List.length padd]. apply IH; [exact CA|lia|].
  destruct FIN as (n & sf & Hn). destruct n as [|n]; [discriminate|]. cbn [run_chunk] in Hn. rewrite C0 in Hn.
  assert (ST : step im c s = Next s) by (destruct c; cbn [isize] in Z0; try lia; reflexivity).
  rewrite ST in Hn. exists n, sf. exact Hn.
Qed.

(* every address in the image is the base plus the size of a prefix of the code *)
Lemma build_addr_inv : forall cs i a im j x,
  PM.find j (addr_of (build cs i a im)) = Some x ->
  PM.find j (addr_of im) = Some x \/ exists n c, j = padd i n /\ nth_error cs n = Some c /\ x = a + size_of (firstn n cs).
Proof.
  induction cs as [|c0 r IH]; intros i a im j x H; cbn [build] in H; [now left|].
  apply IH in H as [H|(n & c & -> & Hn & ->)].
  - cbn [addr_of] in H. destruct (Pos.eq_dec j i) as [->|NE].
    + rewrite PM.gss in H. inversion H; subst. right. exists O, c0. cbn. repeat split; auto. lia.
    + rewrite PM.gso in H by exact NE. now left.
  - right. exists (S n), c. cbn [padd nth_error firstn size_of]. repeat split; auto. lia.
Qed.
Lemma size_firstn_le : forall cs n, size_of (firstn n cs) <= size_of cs.
Proof.
  induction cs as [|c r IH]; intros n; destruct n; cbn [firstn size_of]; try lia.
  - pose proof (isize_nonneg c). pose proof (size_of_nonneg r). lia.
  - specialize (IH n). lia.
Qed.
Definition code_small (cs : list acode) : bool := size_of cs <? 4611686018427387904 - CODE_BASE.
Lemma mk_image_small cs : code_small cs = true ->
  forall pc a, PM.find pc (addr_of (mk_image cs)) = Some a -> a < 4611686018427387904.
Proof.
  unfold code_small. rewrite Z.ltb_lt. intros H pc a A. unfold mk_image in A.
  apply build_addr_inv in A as [A|(n & c & _ & _ & ->)]; [cbn in A; rewrite PM.gempty in A; discriminate|].
  pose proof (size_firstn_le cs n). lia.
Qed.
