(* From the global facts proved about the output (binder ids pairwise distinct, non-zero ids in
   scope) to the path-wise boolean checkers of Model/FocusCheck.v. *)
From Coq Require Import List ZArith NArith String Bool Lia.
From SCC Require Import Base.Sexp Lang.CoreSyn Model.Backend Model.Uniquify Model.Focus Model.FocusCheck
     Proof.CoreInd Proof.SubstProof Proof.CheckLemmas Proof.FocusLemmas.
Import ListNotations.
Open Scope list_scope.
Open Scope N_scope.

Lemma mem_le_flat_map : forall (X : Type) (f : X -> list N) b l,
  (forall x, In x l -> mem_le b (f x)) -> mem_le b (flat_map f l).
Proof.
  intros X f b l H i Hi. apply in_flat_map in Hi. destruct Hi as (x & Hx & Hi). eapply H; eauto.
Qed.

Lemma binders_le_all : forall b,
  (forall t, ids_le_term b t = true -> mem_le b (binder_ids_term t)) /\
  (forall a, ids_le_arg b a = true -> mem_le b (binder_ids_arg a)) /\
  (forall c, ids_le_clause b c = true -> mem_le b (binder_ids_clause c)) /\
  (forall s, ids_le_stmt b s = true -> mem_le b (binder_ids_stmt s)).
Proof.
  intros b. apply core_mutind; simpl; intros; bsplit; try apply mem_le_nil;
    repeat (apply mem_le_app; split); auto.
  - apply mem_le_cons; split; auto. apply N.leb_le; auto.
  - apply mem_le_flat_map. rewrite Forall_forall in H. rewrite forallb_forall in H0. auto.
  - apply mem_le_flat_map. rewrite Forall_forall in H. rewrite forallb_forall in H0. auto.
  - apply forallb_leb; auto.
  - destruct b0; simpl in *; auto. apply mem_le_nil.
  - apply mem_le_flat_map. rewrite Forall_forall in H. rewrite forallb_forall in H0. auto.
Qed.
Definition binders_le_stmt b := proj2 (proj2 (proj2 (binders_le_all b))).

Lemma NoDup_flat_map_in : forall (X Y : Type) (f : X -> list Y) l x,
  NoDup (flat_map f l) -> In x l -> NoDup (f x).
Proof.
  induction l as [|y l IH]; simpl; intros x ND Hx; [tauto|].
  apply NoDup_app_iff in ND. destruct ND as (A & B & _). destruct Hx; subst; auto.
Qed.

Lemma path_uniq_ctx_spec : forall ids seen,
  NoDup ids -> (forall x, In x seen -> In x ids -> False) ->
  exists seen', path_uniq_ctx seen ids = Some seen' /\ (forall x, In x seen' <-> In x seen \/ In x ids).
Proof.
  induction ids as [|i r IH]; intros seen ND D; simpl.
  - exists seen; split; auto. intros; tauto.
  - inversion ND as [|? ? Ni NDr]; subst.
    destruct (memN i seen) eqn:M.
    + apply memN_In in M. exfalso; eapply D; eauto. left; auto.
    + apply memN_false in M.
      destruct (IH (i :: seen)) as (seen' & E & Q); auto.
      { intros x [Hx|Hx] Hr; [subst; auto | eapply D; eauto; right; auto]. }
      exists seen'; split; auto. intros x. rewrite Q. simpl. tauto.
Qed.

(* two parts checked against the same `seen`: the binders of each are distinct and disjoint from it *)
Lemma uniq_pair : forall (seen l1 l2 : list N) (b1 b2 : bool),
  NoDup (l1 ++ l2) -> (forall x, In x seen -> In x (l1 ++ l2) -> False) ->
  (NoDup l1 -> (forall x, In x seen -> In x l1 -> False) -> b1 = true) ->
  (NoDup l2 -> (forall x, In x seen -> In x l2 -> False) -> b2 = true) -> b1 && b2 = true.
Proof.
  intros seen l1 l2 b1 b2 ND Hs H1 H2. apply NoDup_app_iff in ND. destruct ND as (A & B & C).
  assert (E1 : b1 = true) by (apply H1; auto; intros y Hy Hb; apply (Hs y Hy), in_or_app; auto).
  assert (E2 : b2 = true) by (apply H2; auto; intros y Hy Hb; apply (Hs y Hy), in_or_app; auto).
  now rewrite E1, E2.
Qed.

Lemma fs_path_uniq_all :
  (forall t seen, NoDup (fs_binder_ids_term t) -> (forall x, In x seen -> In x (fs_binder_ids_term t) -> False) ->
     path_uniq_term seen t = true) /\
  (forall c seen, NoDup (fs_binder_ids_clause c) -> (forall x, In x seen -> In x (fs_binder_ids_clause c) -> False) ->
     path_uniq_clause seen c = true) /\
  (forall s seen, NoDup (fs_binder_ids_stmt s) -> (forall x, In x seen -> In x (fs_binder_ids_stmt s) -> False) ->
     path_uniq_stmt seen s = true).
Proof.
  apply fs_mutind; simpl; intros; auto.
  - (* Mu *)
    inversion H0 as [|? ? Ni ND]; subst. bsplit.
    + apply negb_true_iff. apply memN_false. intro Hs. eapply H1; eauto.
    + apply H; auto. intros y [Hx|Hx] Hb; [subst; auto | eapply H1; eauto].
  - (* XCase *)
    apply forallb_forall. intros cl Hcl. rewrite Forall_forall in H. apply H; auto.
    + eapply NoDup_flat_map_in; eauto.
    + intros y Hs Hb. eapply H1; eauto. apply in_flat_map. eauto.
  - (* Clause *)
    apply NoDup_app_iff in H0. destruct H0 as (A & B & C).
    destruct (path_uniq_ctx_spec (cids ctx) seen) as (seen' & E & Q); auto.
    { intros y Hs Hc. eapply H1; eauto. apply in_or_app; auto. }
    rewrite E. apply H; auto.
    intros y Hs Hb. apply Q in Hs. destruct Hs as [Hs|Hs]; [eapply H1; eauto; apply in_or_app; auto | eapply C; eauto].
  - (* Cut *)
    eapply uniq_pair; eauto.
  - (* IfC *)
    eapply uniq_pair; eauto.
Qed.

Lemma fs_path_uniq_def : forall d, NoDup (fs_binder_ids_def d) -> path_uniq_def d = true.
Proof.
  intros d ND. unfold path_uniq_def, fs_binder_ids_def in *.
  apply NoDup_app_iff in ND. destruct ND as (A & B & C).
  destruct (path_uniq_ctx_spec (cids (fsdctx d)) []) as (seen' & E & Q); auto.
  rewrite E. apply (proj2 (proj2 fs_path_uniq_all)); auto.
  intros y Hs Hb. apply Q in Hs. destruct Hs as [[]|Hs]. eapply C; eauto.
Qed.

Lemma c_path_uniq_all :
  (forall t seen, NoDup (binder_ids_term t) -> (forall x, In x seen -> In x (binder_ids_term t) -> False) ->
     cpath_uniq_term seen t = true) /\
  (forall a seen, NoDup (binder_ids_arg a) -> (forall x, In x seen -> In x (binder_ids_arg a) -> False) ->
     cpath_uniq_arg seen a = true) /\
  (forall c seen, NoDup (binder_ids_clause c) -> (forall x, In x seen -> In x (binder_ids_clause c) -> False) ->
     cpath_uniq_clause seen c = true) /\
  (forall s seen, NoDup (binder_ids_stmt s) -> (forall x, In x seen -> In x (binder_ids_stmt s) -> False) ->
     cpath_uniq_stmt seen s = true).
Proof.
  apply core_mutind; simpl; intros; auto.
  - (* Op *)
    eapply uniq_pair; eauto.
  - (* Mu *)
    inversion H0 as [|? ? Ni ND]; subst. bsplit.
    + apply negb_true_iff. apply memN_false. intro Hs. eapply H1; eauto.
    + apply H; auto. intros y [Hx|Hx] Hb; [subst; auto | eapply H1; eauto].
  - (* Xtor *)
    apply forallb_forall. intros cl Hcl. rewrite Forall_forall in H. apply H; auto.
    + eapply NoDup_flat_map_in; eauto.
    + intros y Hs Hb. eapply H1; eauto. apply in_flat_map. eauto.
  - (* XCase *)
    apply forallb_forall. intros cl Hcl. rewrite Forall_forall in H. apply H; auto.
    + eapply NoDup_flat_map_in; eauto.
    + intros y Hs Hb. eapply H1; eauto. apply in_flat_map. eauto.
  - (* Clause *)
    apply NoDup_app_iff in H0. destruct H0 as (A & B & C).
    destruct (path_uniq_ctx_spec (cids ctx) seen) as (seen' & E & Q); auto.
    { intros y Hs Hc. eapply H1; eauto. apply in_or_app; auto. }
    rewrite E. apply H; auto.
    intros y Hs Hb. apply Q in Hs. destruct Hs as [Hs|Hs]; [eapply H1; eauto; apply in_or_app; auto | eapply C; eauto].
  - (* Cut *)
    eapply uniq_pair; eauto.
  - (* IfC *)
    apply NoDup_app_iff in H3. destruct H3 as (A & B & C).
    apply NoDup_app_iff in B. destruct B as (B1 & B2 & C2).
    apply NoDup_app_iff in B2. destruct B2 as (B3 & B4 & C3).
    bsplit.
    + apply H; auto. intros y Hs Hb. eapply H4; eauto. apply in_or_app; auto.
    + destruct b; simpl in *; auto. apply H0; auto.
      intros y Hs Hb. eapply H4; eauto. apply in_or_app; right. apply in_or_app; auto.
    + apply H1; auto. intros y Hs Hb. eapply H4; eauto.
      apply in_or_app; right. apply in_or_app; right. apply in_or_app; auto.
    + apply H2; auto. intros y Hs Hb. eapply H4; eauto.
      apply in_or_app; right. apply in_or_app; right. apply in_or_app; auto.
  - (* Print *)
    eapply uniq_pair; eauto.
  - (* Call *)
    apply forallb_forall. intros cl Hcl. rewrite Forall_forall in H. apply H; auto.
    + eapply NoDup_flat_map_in; eauto.
    + intros y Hs Hb. eapply H1; eauto. apply in_flat_map. eauto.
Qed.

Lemma c_path_uniq_def : forall d, NoDup (binder_ids_def d) -> cpath_uniq_def d = true.
Proof.
  intros d ND. unfold cpath_uniq_def, binder_ids_def in *.
  apply NoDup_app_iff in ND. destruct ND as (A & B & C).
  destruct (path_uniq_ctx_spec (cids (cdctx d)) []) as (seen' & E & Q); auto.
  rewrite E. apply (proj2 (proj2 (proj2 c_path_uniq_all))); auto.
  intros y Hs Hb. apply Q in Hs. destruct Hs as [[]|Hs]. eapply C; eauto.
Qed.

Lemma occ_sc_ok : forall env bs v, ~ In 0 bs -> occ_sc env v = true -> occ_ok env bs v = true.
Proof.
  unfold occ_sc, occ_ok; intros env bs v Z H. apply orb_true_iff in H. apply orb_true_iff.
  destruct H as [H|H]; auto. right. apply N.eqb_eq in H. rewrite H.
  apply negb_true_iff. apply memN_false. auto.
Qed.

Lemma fs_free_ok_all : forall bs, ~ In 0 bs ->
  (forall t env, fs_scoped_term env t = true -> fs_free_ok_term env bs t = true) /\
  (forall c env, fs_scoped_clause env c = true -> fs_free_ok_clause env bs c = true) /\
  (forall s env, fs_scoped_stmt env s = true -> fs_free_ok_stmt env bs s = true).
Proof.
  intros bs Z. apply fs_mutind; simpl; intros; bsplit; auto using occ_sc_ok.
  - eapply forallb_impl; [|eassumption]. intros; apply occ_sc_ok; auto.
  - eapply forallb_impl; [|eassumption]. rewrite Forall_forall in H. auto.
  - destruct b; auto using occ_sc_ok.
  - eapply forallb_impl; [|eassumption]. intros; apply occ_sc_ok; auto.
Qed.
