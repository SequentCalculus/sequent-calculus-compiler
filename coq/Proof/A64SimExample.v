(* C07: a concrete program of the integer fragment on which every hypothesis of
   a64_codegen_simulates_int is evaluated, and both sides of its conclusion are computed.  It crosses the
   AArch64 specifics: literals that need MOVZ+MOVK+MOVK and MOVN+MOVK, a print with exactly 13 live variables
   (the 13th lives in the link register X30, saved around BL), 19 live variables (spill slots 1..6), a
   remainder with all three temporaries spilled (SDIV+MSUB with X10 evacuated to slot 0), an explicit
   substitution followed by a call, a division by zero, two definitions. *)
From Coq Require Import List ZArith NArith String Bool.
From SCC Require Import Lang.AxSyn Sem.AxSem Model.Backend Model.A64 Sem.A64Sem Sem.A64Wf Model.LinCheck
     Proof.A64SimRel Proof.A64SimTop.
Import ListNotations.
Open Scope string_scope.
Open Scope Z_scope.

Definition id_ (s : string) (n : N) : ident := (s, n).
Definition ib (s : string) (n : N) : binding := mkb (id_ s n) Ext I64.
(* k literals v<n>, v<n+1>, ... with values 7n - 20 *)
Fixpoint lits (k : nat) (n : N) (body : stmt) : stmt :=
  match k with O => body | S k' => Literal (Z.of_N n * 7 - 20) (id_ "v" n) (lits k' (n + 1) body) end.

Definition ex_main : def :=
  mkd (id_ "main" 0) [ib "x" 1]
    (Literal 1234567890123 (id_ "a" 2)               (* MOVZ, MOVK, MOVK *)
    (Literal (-1234567890) (id_ "b" 3)               (* MOVN, MOVK *)
    (lits 10 4                                       (* v4 .. v13: 13 variables, v13 lives in X30 *)
    (PrintI64 true (id_ "v" 13)
    (lits 3 14                                       (* v14, v15, v16: spill slots *)
    (Op (id_ "v" 14) Rem (id_ "v" 15) (id_ "r" 17)   (* everything spilled: X10 evacuated *)
    (PrintI64 false (id_ "r" 17)
    (Op (id_ "a" 2) Prod (id_ "v" 16) (id_ "m" 18)
    (PrintI64 true (id_ "m" 18)
    (IfC Lt (id_ "x" 1) (Some (id_ "v" 13))
       (Substitute [(ib "p" 20, id_ "m" 18); (ib "q" 21, id_ "x" 1); (ib "r" 22, id_ "m" 18)] (Call (id_ "f" 0) []))
       (Literal 100 (id_ "k" 19)
       (Op (id_ "x" 1) Sub (id_ "k" 19) (id_ "d" 20)
       (Op (id_ "b" 3) Div (id_ "d" 20) (id_ "w" 21)
       (Op (id_ "w" 21) Sub (id_ "v" 13) (id_ "u" 22)
       (Exit (id_ "u" 22)))))))))))))))).
Definition ex_f : def :=
  mkd (id_ "f" 0) [ib "p" 1; ib "q" 2; ib "r" 3]
    (Op (id_ "p" 1) Sum (id_ "q" 2) (id_ "e" 4)
    (PrintI64 false (id_ "e" 4)
    (IfC Eq (id_ "q" 2) None
       (Exit (id_ "r" 3))
       (Exit (id_ "e" 4))))).
Definition ex_prog : prog := mkp [ex_main; ex_f] [] 30.

Definition ex_code : list acode :=
  match a64_compile ex_prog 0 with Ok (cs, _, _) => cs | Err _ => [] end.

(* the emitted code, evaluated once; the lemmas below evaluate on it instead of compiling again *)
Definition ex_code_nf : list acode := Eval vm_compute in ex_code.
Lemma ex_code_eq : ex_code = ex_code_nf.
Proof. vm_compute. reflexivity. Qed.

Lemma ex_hypotheses :
  int_frag ex_prog = true /\ plain_names ex_prog = true /\ lits_i64 ex_prog = true /\ lin_check_prog ex_prog = true /\
  (exists n lc', a64_compile ex_prog 0 = Ok (ex_code, n, lc')) /\ asm_wf ex_code = None.
Proof. rewrite ex_code_eq. repeat apply conj; try (vm_compute; reflexivity). eexists _, _. vm_compute. reflexivity. Qed.

(* the AArch64 specifics really occur in the emitted code *)
Lemma ex_code_shape :
  filter (fun c => match c with MOVK _ _ _ | MOVN _ _ _ | MSUB _ _ _ _ | STR (X 10) _ _ | STR (X 29) _ _ | MOVR _ (X 29) => true
                   | _ => false end) ex_code =
  [MOVK (X 7) 29179 16; MOVK (X 7) 287 32;                    (* a = 0x011f_71fb_04cb after MOVZ *)
   MOVN (X 9) 721 0; MOVK (X 9) 46697 16;                     (* b *)
   STR (X 29) SP 56; MOVR (X 0) (X 29);                       (* X30 pushed around BL (13 live variables); v13 printed from X30 *)
   STR (X 10) SP 2040; MSUB (X 2) (X 3) (X 10) (X 2);         (* rem with everything spilled: X10 evacuated to slot 0 *)
   STR (X 29) SP 56; STR (X 29) SP 56].                       (* X30 pushed around the two later prints *)
Proof. rewrite ex_code_eq. vm_compute. reflexivity. Qed.

(* x = 0 and x = 5: main calls f, which exits with r resp. e; x = 200: the else branch divides;
   x = 100: division by zero *)
Lemma ex_runs :
  run_linear 100 ex_prog [0] = ([(true, 71); (false, 78); (true, 113580245891316); (false, 113580245891316)], OExit 113580245891316) /\
  fst (run_a64 10 1000 ex_code [0]) = ([(true, 71); (false, 78); (true, 113580245891316); (false, 113580245891316)], OExit 113580245891316) /\
  run_linear 100 ex_prog [5] = ([(true, 71); (false, 78); (true, 113580245891316); (false, 113580245891321)], OExit 113580245891321) /\
  fst (run_a64 10 1000 ex_code [5]) = ([(true, 71); (false, 78); (true, 113580245891316); (false, 113580245891321)], OExit 113580245891321) /\
  run_linear 100 ex_prog [200] = ([(true, 71); (false, 78); (true, 113580245891316)], OExit (-12345749)) /\
  fst (run_a64 10 1000 ex_code [200]) = ([(true, 71); (false, 78); (true, 113580245891316)], OExit (-12345749)) /\
  run_linear 100 ex_prog [100] = ([(true, 71); (false, 78); (true, 113580245891316)], OUndef "div0") /\
  fst (run_a64 10 1000 ex_code [100]) = ([(true, 71); (false, 78); (true, 113580245891316)], OUndef "div0").
Proof. rewrite ex_code_eq. repeat apply conj; vm_compute; reflexivity. Qed.

(* the theorem applies to the example: for EVERY 64-bit argument and every fuel that suffices *)
Lemma ex_simulated x fuel o :
  lit_i64 x = true -> run_linear fuel ex_prog [x] = o -> snd o <> OOutOfFuel ->
  exists outer inner, fst (run_a64 outer inner ex_code [x]) = o.
Proof.
  intros IX RUN G. destruct ex_hypotheses as (A & B & C & D & (n & lc' & E) & W).
  destruct (a64_compile_inv _ _ _ _ _ E) as (d0 & rest & _ & _ & PD & Hn & _). injection PD as <- _.
  assert (AI : args_i64 [x] = true) by (unfold args_i64; cbn [forallb]; now rewrite IX).
  exact (a64_codegen_simulates_int ex_prog 0%N ex_code n lc' [x] fuel o A B C D E W (eq_sym Hn) AI RUN G).
Qed.

(* without the arity hypothesis the statement is false: ex_prog (one parameter) called with eight arguments:
   the linear machine refuses to start ("entry-args"), the ISA entry convention has no eighth integer
   argument register for asm_main ("too-many-arguments"), whatever the fuel *)
Lemma ex_arity_needed :
  ~ (forall (p : prog) (lc : N) (cs : list acode) (n : nat) (lc' : N) (args : list Z) (fuel : nat) (o : obs),
      int_frag p = true -> plain_names p = true -> lits_i64 p = true -> lin_check_prog p = true ->
      a64_compile p lc = Ok (cs, n, lc') -> asm_wf cs = None -> args_i64 args = true ->
      run_linear fuel p args = o -> snd o <> OOutOfFuel ->
      exists outer inner, fst (run_a64 outer inner cs args) = o).
Proof.
  intros H. destruct ex_hypotheses as (A & B & C & D & (n & lc' & E) & W).
  destruct (H ex_prog 0%N ex_code n lc' [1; 2; 3; 4; 5; 6; 7; 8] 5%nat _ A B C D E W eq_refl eq_refl) as (outer & inner & R).
  { vm_compute. discriminate. }
  rewrite ex_code_eq in R. unfold run_a64 in R. change (find_label (labels (mk_image ex_code_nf)) "asm_main") with (Some 3%positive) in R.
  cbv iota beta zeta in R. change (Nat.ltb 7 (List.length [1; 2; 3; 4; 5; 6; 7; 8])) with true in R. cbv iota in R.
  vm_compute in R. discriminate.
Qed.
