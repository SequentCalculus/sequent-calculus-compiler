(* C08, forward simulation of the RISC-V code generator: facts about the code image of
   Sem/RVSem.v (byte addresses of consecutive instructions, `index_at` maps the address of an
   instruction of non-zero size back to its index, labels resolve in an image whose labels are pairwise
   distinct, nothing lies beyond the end) and execution up to the final observation (`rfin`), which
   composes with the small-step relation `star` of Proof/RVSel.v although `run_chunk` compares the
   program counter with the index of `cleanup` before every step. *)
From Coq Require Import List ZArith NArith String Bool Lia FMapPositive.
From SCC Require Import Base.Sexp Lang.AxSyn Sem.AxSem Model.Backend Model.RV Sem.RVSem Sem.RVWf Proof.RVSel.
Import ListNotations.
Open Scope Z_scope.
Open Scope list_scope.

Lemma padd_nat : forall n i, Pos.to_nat (padd i n) = (Pos.to_nat i + n)%nat.
Proof. induction n as [|n IH]; intros i; cbn [padd]; [lia|]. rewrite IH. lia. Qed.
Lemma padd_inj i n m : padd i n = padd i m -> n = m.
Proof. intros H. apply (f_equal Pos.to_nat) in H. rewrite !padd_nat in H. lia. Qed.
Lemma padd_1 i : padd i 1 = Pos.succ i. Proof. reflexivity. Qed.

Lemma build_code_inv : forall cs i a im j c,
  PM.find j (code (build cs i a im)) = Some c ->
  PM.find j (code im) = Some c \/ exists n, j = padd i n /\ nth_error cs n = Some c.
Proof.
  induction cs as [|c0 r IH]; intros i a im j c H; cbn [build] in H; [now left|].
  apply IH in H as [H|(n & -> & Hn)].
  - cbn [code] in H. destruct (Pos.eq_dec j i) as [->|NE].
    + rewrite PM.gss in H. inversion H; subst. right. exists O. auto.
    + rewrite PM.gso in H by exact NE. now left.
  - right. exists (S n). auto.
Qed.
Lemma build_addr_inv : forall cs i a im j x,
  PM.find j (addr_of (build cs i a im)) = Some x ->
  PM.find j (addr_of im) = Some x \/ exists n c, j = padd i n /\ nth_error cs n = Some c /\ x = a + size_of (firstn n cs).
Proof.
  induction cs as [|c0 r IH]; intros i a im j x H; cbn [build] in H; [now left|].
  apply IH in H as [H|(n & c & -> & Hn & ->)].
  - cbn [addr_of] in H. destruct (Pos.eq_dec j i) as [->|NE].
    + rewrite PM.gss in H. inversion H; subst. right. exists O, c0. cbn. repeat split; auto. lia.
    + rewrite PM.gso in H by exact NE. now left.
  - right. exists (S n), c. cbn [padd nth_error firstn size_of]. repeat split; auto. lia.
Qed.
Definition im0 : image :=
  {| code := PM.empty _; addr_of := PM.empty _; index_at := PM.empty _; labels := []; len := 1%positive |}.
Lemma mk_image_code_inv cs j c :
  PM.find j (code (mk_image cs)) = Some c -> exists n, j = padd 1%positive n /\ nth_error cs n = Some c.
Proof.
  intros H. apply build_code_inv in H as [H|H]; [|exact H]. cbn in H. rewrite PM.gempty in H. discriminate.
Qed.
Lemma mk_image_code_in cs pc c : PM.find pc (code (mk_image cs)) = Some c -> In c cs.
Proof. intros H. apply mk_image_code_inv in H as (n & _ & Hn). eapply nth_error_In; eauto. Qed.
Lemma mk_image_code_end cs : PM.find (padd 1%positive (List.length cs)) (code (mk_image cs)) = None.
Proof.
  destruct (PM.find _ _) as [c|] eqn:E; [|reflexivity]. apply mk_image_code_inv in E as (n & E & Hn).
  apply padd_inj in E. subst n. assert (List.length cs < List.length cs)%nat by (apply nth_error_Some; congruence). lia.
Qed.

Lemma firstn_S_size cs : forall n c, nth_error cs n = Some c -> size_of (firstn (S n) cs) = size_of (firstn n cs) + isize c.
Proof.
  induction cs as [|c0 r IH]; intros n c H; [destruct n; discriminate|].
  destruct n as [|n]; cbn [nth_error] in H.
  - inversion H; subst. cbn. lia.
  - change (firstn (S (S n)) (c0 :: r)) with (c0 :: firstn (S n) r). change (firstn (S n) (c0 :: r)) with (c0 :: firstn n r).
    cbn [size_of]. rewrite (IH n c H). lia.
Qed.
Lemma size_firstn_le : forall cs n, size_of (firstn n cs) <= size_of cs.
Proof.
  induction cs as [|c r IH]; intros n; destruct n; cbn [firstn size_of]; try lia.
  - pose proof (isize_nonneg c). pose proof (size_of_nonneg r). lia.
  - specialize (IH n). lia.
Qed.

(* what the closure / jump-table code needs of an image *)
Record rimg_ok (im : image) : Prop := {
  io_addr : forall pc c, PM.find pc (code im) = Some c -> exists a, PM.find pc (addr_of im) = Some a /\ CODE_BASE <= a;
  io_next : forall pc c c' a, PM.find pc (code im) = Some c -> PM.find (Pos.succ pc) (code im) = Some c' ->
            PM.find pc (addr_of im) = Some a -> PM.find (Pos.succ pc) (addr_of im) = Some (a + isize c);
  io_index : forall pc c a, PM.find pc (code im) = Some c -> isize c <> 0 -> PM.find pc (addr_of im) = Some a ->
             PM.find (key a) (index_at im) = Some pc
}.

Theorem mk_image_ok cs : rimg_ok (mk_image cs).
Proof.
  split.
  - intros pc c H. destruct (mk_image_code_inv cs pc c H) as (n & -> & Hn). eexists. split; [apply (build_addr_at cs _ _ _ n c Hn)|].
    pose proof (size_of_nonneg (firstn n cs)). lia.
  - intros pc c c' a H H' A. destruct (mk_image_code_inv cs pc c H) as (n & -> & Hn).
    destruct (mk_image_code_inv cs _ c' H') as (n' & E & Hn').
    rewrite <- padd_succ in E. change (padd (Pos.succ 1) n) with (padd 1 (S n)) in E. apply padd_inj in E. subst n'.
    unfold mk_image in *. rewrite (build_addr_at cs _ _ _ n c Hn) in A. assert (EA : a = CODE_BASE + size_of (firstn n cs)) by congruence. subst a. clear A.
    rewrite <- padd_succ. change (padd (Pos.succ 1) n) with (padd 1 (S n)). rewrite (build_addr_at cs _ _ _ (S n) c' Hn'). f_equal. rewrite (firstn_S_size cs n c Hn). lia.
  - intros pc c a H SZ A. destruct (mk_image_code_inv cs pc c H) as (n & -> & Hn).
    unfold mk_image in *. rewrite (build_addr_at cs _ _ _ n c Hn) in A. assert (EA : a = CODE_BASE + size_of (firstn n cs)) by congruence. subst a.
    apply (build_index_at cs _ CODE_BASE _ n c); [reflexivity|exact Hn|exact SZ].
Qed.

Lemma label_addr_of im l i a :
  find_label (labels im) l = Some i -> PM.find i (addr_of im) = Some a -> label_addr im l = Some a.
Proof. intros H A. unfold label_addr. now rewrite H. Qed.

Lemma at_code_cons im pc c cs : at_code im pc (c :: cs) ->
  (PM.find pc (code im) = Some c /\ exists a, PM.find pc (addr_of im) = Some a) /\ at_code im (Pos.succ pc) cs.
Proof.
  intros H. split; [exact (H O c eq_refl)|]. intros n c' Hn. exact (H (S n) c' Hn).
Qed.
Lemma at_code_nth im pc cs n c : at_code im pc cs -> nth_error cs n = Some c -> PM.find (padd pc n) (code im) = Some c.
Proof. intros H Hn. exact (proj1 (H n c Hn)). Qed.

Lemma addr_along im (IO : rimg_ok im) : forall cs pc a,
  at_code im pc cs -> PM.find pc (addr_of im) = Some a ->
  forall n c, nth_error cs n = Some c -> PM.find (padd pc n) (addr_of im) = Some (a + size_of (firstn n cs)).
Proof.
  induction cs as [|c0 r IH]; intros pc a CA A n c Hn; [destruct n; discriminate|].
  apply at_code_cons in CA as [[C0 _] CA].
  destruct n as [|n]; cbn [nth_error padd firstn size_of] in *; [rewrite A; f_equal; lia|].
  destruct r as [|c1 r']; [destruct n; discriminate|].
  pose proof CA as CA'. apply at_code_cons in CA' as [[C1 _] _].
  pose proof (io_next im IO pc c0 c1 a C0 C1 A) as A1.
  rewrite (IH (Pos.succ pc) (a + isize c0) CA A1 n c Hn). f_equal. lia.
Qed.

(* 4611686018427387904 = 2^62: below it a code address plus a jump-table offset stays inside the i64 range, so the
   `wrap` of the ADDI / ADD of the table dispatch is the identity (RVSimClo.sim_invoke); 32 is the largest isize *)
Definition code_small (cs : list rcode) : bool := CODE_BASE + size_of cs + 32 <? 4611686018427387904.
Lemma mk_image_small cs : code_small cs = true ->
  forall pc a, PM.find pc (addr_of (mk_image cs)) = Some a -> a < 4611686018427387904 - 32.
Proof.
  unfold code_small. rewrite Z.ltb_lt. intros H pc a A. unfold mk_image in A.
  apply build_addr_inv in A as [A|(n & c & _ & _ & ->)]; [cbn in A; rewrite PM.gempty in A; discriminate|].
  pose proof (size_firstn_le cs n). lia.
Qed.
Lemma code_small_app cs t : code_small (cs ++ t) = true -> code_small cs = true.
Proof. unfold code_small. rewrite !Z.ltb_lt, size_of_app. pose proof (size_of_nonneg t). lia. Qed.

Lemma mk_image_even cs pc a : PM.find pc (addr_of (mk_image cs)) = Some a -> a mod 2 = 0.
Proof.
  intros A. unfold mk_image in A.
  apply build_addr_inv in A as [A|(n & c & _ & _ & ->)]; [cbn in A; rewrite PM.gempty in A; discriminate|].
  apply code_addr_even.
Qed.

Lemma labels_of_defined cs : labels_of cs = defined_labels cs.
Proof. unfold labels_of, defined_labels. apply flat_map_ext. intros c. destruct c; reflexivity. Qed.
Lemma first_dup_NoDup l : first_dup l = None -> NoDup l.
Proof.
  induction l as [|x l IH]; cbn [first_dup]; intros H; [constructor|].
  destruct (mem_str x l) eqn:M; [discriminate|]. constructor; auto.
  intros Hin. unfold mem_str in M. assert (existsb (String.eqb x) l = true); [|congruence].
  apply existsb_exists. exists x. split; auto. apply String.eqb_refl.
Qed.
Lemma asm_wf_labels cs : asm_wf cs = None -> NoDup (labels_of (cs ++ [LAB "cleanup"%string])).
Proof.
  unfold asm_wf. destruct (first_dup ("cleanup"%string :: defined_labels cs)) eqn:E; [discriminate|]. intros _.
  apply first_dup_NoDup in E. rewrite labels_of_app, labels_of_defined. cbn [labels_of flat_map app].
  apply NoDup_cons_iff in E as [NI ND]. clear -NI ND. induction (defined_labels cs) as [|x l IH]; cbn [app].
  - constructor; [intros []|constructor].
  - inversion ND; subst. constructor.
    + intros Hin. apply in_app_or in Hin as [Hin|[<-|[]]]; [contradiction|]. apply NI. now left.
    + apply IH; auto. intros Hin. apply NI. now right.
Qed.
Lemma asm_wf_enc cs : asm_wf cs = None -> forall c, In c cs -> instr_wf c = true.
Proof.
  unfold asm_wf. intros H c Hc.
  destruct (first_dup _); [discriminate|]. destruct (find _ (flat_map referenced cs)); [discriminate|].
  destruct (find (fun c => negb (instr_wf c)) cs) eqn:F; [discriminate|].
  pose proof (find_none _ _ F c Hc) as N. cbn beta in N. destruct (instr_wf c); [reflexivity|discriminate].
Qed.

(* no duplicate among the labels of the image: `duplicate_labels` is empty *)
Lemma lab_acc_fst : forall cs i acc, map fst (lab_acc cs i acc) = rev (labels_of cs) ++ map fst acc.
Proof.
  induction cs as [|c r IH]; intros i acc; cbn [lab_acc labels_of flat_map]; [reflexivity|].
  rewrite IH. fold (labels_of r). destruct c; cbn [app rev map fst]; try reflexivity.
  rewrite <- app_assoc. reflexivity.
Qed.
Lemma dup_go_nil : forall ls : list (string * positive), NoDup (map fst ls) ->
  (fix go (ls : list (string * positive)) : list string :=
     match ls with
     | [] => []
     | (l, _) :: r => if existsb (fun p => String.eqb (fst p) l) r then l :: go r else go r
     end) ls = [].
Proof.
  induction ls as [|[l i] r IH]; intros ND; [reflexivity|]. cbn [map fst] in ND. inversion ND as [|? ? NI ND']; subst.
  destruct (existsb (fun p => String.eqb (fst p) l) r) eqn:E; [|exact (IH ND')].
  exfalso. apply existsb_exists in E as ([l' i'] & Hin & Heq). cbn [fst] in Heq. apply String.eqb_eq in Heq. subst l'.
  apply NI. apply in_map_iff. exists (l, i'). auto.
Qed.
Lemma duplicate_labels_nil cs : NoDup (labels_of cs) -> duplicate_labels (mk_image cs) = [].
Proof.
  intros ND. unfold duplicate_labels. apply dup_go_nil. unfold mk_image. rewrite build_labels, lab_acc_fst. cbn [labels map].
  rewrite app_nil_r. apply NoDup_rev. exact ND.
Qed.

Definition rfin (im : image) (stop : positive) (pc : positive) (s : rstate) (o : obs) : Prop :=
  (exists c, PM.find pc (code im) = Some c) /\ exists n sf, run_chunk n im stop pc s = Finished o sf.

Section Fin.
Variable im : image.
Variable stop : positive.
Hypothesis STOPC : exists l, PM.find stop (code im) = Some (LAB l).
Hypothesis ENDC : PM.find (Pos.succ stop) (code im) = None.

Lemma one_not_stop pc s pc1 s1 : one im pc s pc1 s1 -> (exists c, PM.find pc1 (code im) = Some c) -> pc <> stop.
Proof.
  intros H (c1 & C1) ->. destruct STOPC as (l & SC).
  inversion H as [pc0 c a s0 s0' Hc Ha Hs|pc0 c a s0 s0' j Hc Ha Hs]; subst.
  - congruence.
  - rewrite SC in Hc. inversion Hc; subst c. discriminate.
Qed.

Lemma star_rfin pc s pc' s' o : star im pc s pc' s' -> rfin im stop pc' s' o -> rfin im stop pc s o.
Proof.
  induction 1 as [pc s|pc s pc1 s1 pc2 s2 O _ IH]; intros Fin; [exact Fin|].
  specialize (IH Fin). destruct IH as (C1 & n & sf & Hn).
  pose proof (one_not_stop _ _ _ _ O C1) as NE.
  split.
  - inversion O; subst; eauto.
  - exists (S n), sf. rewrite (run_chunk_one im stop pc s pc1 s1 n O NE). exact Hn.
Qed.

Lemma rfin_stop s : rfin im stop stop s ([], final_check s).
Proof.
  destruct STOPC as (l & SC). split; [eauto|]. exists 1%nat, s. cbn [run_chunk]. now rewrite Pos.eqb_refl.
Qed.

Lemma rfin_undef pc c a s w s' :
  PM.find pc (code im) = Some c -> PM.find pc (addr_of im) = Some a -> step im a c s = Undefd w s' ->
  rfin im stop pc s ([], OUndef w).
Proof.
  intros Hc Ha Hs. split; [eauto|]. exists 1%nat, s'. cbn [run_chunk].
  destruct (Pos.eqb_spec pc stop) as [->|NE].
  - destruct STOPC as (l & SC). rewrite SC in Hc. inversion Hc; subst c. discriminate.
  - now rewrite Hc, Ha, Hs.
Qed.

Lemma rfin_run pc s o : rfin im stop pc s o -> exists outer inner, fst (run outer inner im stop pc s) = o.
Proof. intros (_ & n & sf & Hn). exists 1%nat, n. cbn [run]. now rewrite Hn. Qed.
End Fin.

Lemma star_next im pc c cs s s' :
  at_code im pc (c :: cs) -> (forall a, step im a c s = Next s') -> star im pc s (Pos.succ pc) s'.
Proof.
  intros CA ST. apply at_code_cons in CA as [[Hc (a & Ha)] _].
  eapply star_step; [eapply one_next; [exact Hc|exact Ha|apply ST]|apply star_refl].
Qed.
Lemma star_jump im pc c cs s s' j :
  at_code im pc (c :: cs) -> (forall a, step im a c s = Jump s' j) -> star im pc s j s'.
Proof.
  intros CA ST. apply at_code_cons in CA as [[Hc (a & Ha)] _].
  eapply star_step; [eapply one_jump; [exact Hc|exact Ha|apply ST]|apply star_refl].
Qed.
