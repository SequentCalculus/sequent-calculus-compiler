(* C15, the base of the proofs about the checker: the error monad, what a successful run says for each form of term,
   argument list, clause list, definition and program ([run_*]), and the annotation theorem: the checked program is the
   parsed program plus annotations.
   [ann_of t' t]: t' is t with other annotation fields (ty / chi / clause contexts) and with the
   clauses of every case/new permuted.  Main result: [check_gen_annotates]. *)
From Coq Require Import List ZArith String Bool Permutation Lia.
From SCC Require Import Base.Sexp Lang.SynUtil Lang.FunSyn Model.Check Proof.FunInd.
Import ListNotations.
Open Scope list_scope.

Inductive clause_rel (R : fterm -> fterm -> Prop) : fclause -> fclause -> Prop :=
| clause_rel_intro : forall p x ns c' c b' b, R b' b -> clause_rel R (FClause p x ns c' b') (FClause p x ns c b).

Inductive ann_of : fterm -> fterm -> Prop :=
| AVar : forall v ty' chi' ty chi, ann_of (FVar v ty' chi') (FVar v ty chi)
| ALit : forall n, ann_of (FLit n) (FLit n)
| AOp : forall a' a o b' b, ann_of a' a -> ann_of b' b -> ann_of (FOp a' o b') (FOp a o b)
| AIfC2 : forall s a' a b' b th' th el' el ty' ty,
    ann_of a' a -> ann_of b' b -> ann_of th' th -> ann_of el' el ->
    ann_of (FIfC s a' (Some b') th' el' ty') (FIfC s a (Some b) th el ty)
| AIfC1 : forall s a' a th' th el' el ty' ty,
    ann_of a' a -> ann_of th' th -> ann_of el' el ->
    ann_of (FIfC s a' None th' el' ty') (FIfC s a None th el ty)
| APrint : forall nl a' a n' n ty' ty, ann_of a' a -> ann_of n' n -> ann_of (FPrint nl a' n' ty') (FPrint nl a n ty)
| ALet : forall v vty a' a b' b ty' ty, ann_of a' a -> ann_of b' b -> ann_of (FLet v vty a' b' ty') (FLet v vty a b ty)
| ACall : forall f args' args r' r, Forall2 ann_of args' args -> ann_of (FCall f args' r') (FCall f args r)
| ACtor : forall x args' args r' r, Forall2 ann_of args' args -> ann_of (FCtor x args' r') (FCtor x args r)
| ADtor : forall s' s x targs args' args r' r,
    ann_of s' s -> Forall2 ann_of args' args -> ann_of (FDtor s' x targs args' r') (FDtor s x targs args r)
| ACase : forall s' s targs cls' cls'' cls r' r,
    ann_of s' s -> Forall2 (clause_rel ann_of) cls' cls'' -> Permutation cls'' cls ->
    ann_of (FCase s' targs cls' r') (FCase s targs cls r)
| ANew : forall cls' cls'' cls r' r,
    Forall2 (clause_rel ann_of) cls' cls'' -> Permutation cls'' cls -> ann_of (FNew cls' r') (FNew cls r)
| ALabel : forall l t' t r' r, ann_of t' t -> ann_of (FLabel l t' r') (FLabel l t r)
| AGoto : forall l t' t r' r, ann_of t' t -> ann_of (FGoto l t' r') (FGoto l t r)
| AExit : forall a' a r' r, ann_of a' a -> ann_of (FExit a' r') (FExit a r)
| AParen : forall t' t, ann_of t' t -> ann_of (FParen t') (FParen t).

Lemma cbind_ok : forall {X Y} (r : cres X) (f : X -> cres Y) y,
  cbind r f = COk y -> exists x, r = COk x /\ f x = COk y.
Proof. intros X Y [x|e] f y H; simpl in H; [eauto | discriminate]. Qed.

Ltac inv_ok :=
  repeat match goal with
  | H : cbind ?r ?f = COk _ |- _ =>
      let x := fresh "x" in let Hx := fresh "Hx" in
      apply cbind_ok in H; destruct H as [x [Hx H]]
  | H : (let '(_, _) := ?p in _) = COk _ |- _ => destruct p
  | H : COk _ = COk _ |- _ => inversion H; subst; clear H
  | H : CErr _ = COk _ |- _ => discriminate H
  | H : (if ?b then _ else _) = COk _ |- _ => destruct b eqn:?
  | H : match ?x with _ => _ end = COk _ |- _ => destruct x eqn:?
  end.

Lemma NoDup_app_l : forall {X} (a b : list X), NoDup (a ++ b) -> NoDup a.
Proof.
  induction a as [|x r IH]; intros b H; [constructor|]. inversion H; subst.
  constructor; [intros Hx; apply H2; apply in_or_app; auto|eauto].
Qed.
Lemma NoDup_app_r : forall {X} (a b : list X), NoDup (a ++ b) -> NoDup b.
Proof. induction a as [|x r IH]; intros b H; [exact H|]. inversion H; subst. eauto. Qed.

Lemma pop_last_spec : forall {X} (l : list X) m z, pop_last l = Some (m, z) -> l = m ++ [z].
Proof.
  induction l as [|x r IH]; simpl; intros m z H; [discriminate|].
  destruct (pop_last r) as [[m' z']|] eqn:E.
  - inversion H; subst. rewrite (IH _ _ eq_refl). reflexivity.
  - inversion H; subst. destruct r; [reflexivity|]. simpl in E. destruct (pop_last r) as [[? ?]|]; discriminate.
Qed.
Lemma pop_last_none : forall {X} (l : list X), pop_last l = None -> l = [].
Proof. destruct l; simpl; intros H; [reflexivity|]. destruct (pop_last l) as [[? ?]|]; discriminate. Qed.

Lemma swap_remove_first_spec : forall {X} (f : X -> bool) (l : list X) x l',
  swap_remove_first f l = Some (x, l') -> f x = true /\ Permutation (x :: l') l.
Proof.
  induction l as [|y r IH]; simpl; intros x l' H; [discriminate|].
  destruct (f y) eqn:Ef.
  - destruct (pop_last r) as [[m z]|] eqn:Ep; inversion H; subst.
    + split; [assumption|]. apply pop_last_spec in Ep. subst r.
      apply perm_skip. change (z :: m) with ([z] ++ m). apply Permutation_app_comm.
    + split; [assumption|]. apply pop_last_none in Ep. subst r. apply Permutation_refl.
  - destruct (swap_remove_first f r) as [[y' r']|] eqn:Es; [|discriminate].
    inversion H; subst. destruct (IH _ _ eq_refl) as [Hf Hp]. split; [assumption|].
    eapply perm_trans; [apply perm_swap|]. apply perm_skip. assumption.
Qed.

(* What [check_term_gen eager t st ctx T = COk (t', st')] says for each form of t: the intermediate results exist and
   t' is the annotated term.  Every induction over the checker starts from these. *)
(* the witnesses of an inversion are in the context *)
Ltac found := repeat esplit; try eassumption; try reflexivity.

Section Runs.
  Variable eager : bool.
  Notation run := (check_term_gen eager).
  Variables (st : symtab) (ctx : fctx) (T : fty) (t' : fterm) (st' : symtab).

  Lemma run_var : forall v ty chi, run (FVar v ty chi) st ctx T = COk (t', st') ->
    match chi with Some FCns => false | _ => true end = true /\
    exists found st1, lookup_var ctx v = COk found
      /\ match ty with Some t => check_equality st t found | None => COk st end = COk st1
      /\ check_equality st1 T found = COk st' /\ t' = FVar v (Some T) (Some FPrd).
  Proof. intros v ty chi H. simpl in H. destruct chi as [[|]|]; try discriminate; inv_ok; found. Qed.

  Lemma run_lit : forall n, run (FLit n) st ctx T = COk (t', st') -> check_equality st T FI64 = COk st' /\ t' = FLit n.
  Proof. intros n H. simpl in H. inv_ok; found. Qed.

  Lemma run_op : forall a o b, run (FOp a o b) st ctx T = COk (t', st') ->
    exists st1 a' st2 b', check_equality st FI64 T = COk st1 /\ run a st1 ctx FI64 = COk (a', st2)
      /\ run b st2 ctx FI64 = COk (b', st') /\ t' = FOp a' o b'.
  Proof. intros a o b H. simpl in H. inv_ok; found. Qed.

  Lemma run_ifc : forall so a b th el r, run (FIfC so a b th el r) st ctx T = COk (t', st') ->
    exists a' st1 b' st2 th' st3 el', run a st ctx FI64 = COk (a', st1)
      /\ match b, b' with
         | Some b0, Some b1 => run b0 st1 ctx FI64 = COk (b1, st2)
         | None, None => st2 = st1
         | _, _ => False
         end
      /\ run th st2 ctx T = COk (th', st3) /\ run el st3 ctx T = COk (el', st')
      /\ t' = FIfC so a' b' th' el' (Some T).
  Proof.
    intros so a b th el r H. simpl in H.
    apply cbind_ok in H. destruct H as [[a' st1] [Ha H]]. apply cbind_ok in H. destruct H as [[b' st2] [Hb H]].
    apply cbind_ok in H. destruct H as [[th' st3] [H3 H]]. apply cbind_ok in H. destruct H as [[el' st4] [H4 H]].
    inversion H; subst. exists a', st1, b', st2, th', st3, el'. split; [exact Ha|]. split; [|auto].
    destruct b as [b0|]; inv_ok; auto.
  Qed.

  Lemma run_print : forall nl a next r, run (FPrint nl a next r) st ctx T = COk (t', st') ->
    exists a' st1 next', run a st ctx FI64 = COk (a', st1) /\ run next st1 ctx T = COk (next', st')
      /\ t' = FPrint nl a' next' (Some T).
  Proof. intros nl a next r H. simpl in H. inv_ok; found. Qed.

  Lemma run_let : forall v vty a body r, run (FLet v vty a body r) st ctx T = COk (t', st') ->
    exists st1 a' st2 body', ty_check vty st = COk st1 /\ run a st1 ctx vty = COk (a', st2)
      /\ run body st2 (ctx ++ [mkfb v FPrd vty]) T = COk (body', st') /\ t' = FLet v vty a' body' (Some T).
  Proof. intros v vty a body r H. simpl in H. inv_ok; found. Qed.

  Lemma run_call : forall f args r, run (FCall f args r) st ctx T = COk (t', st') ->
    exists types ret st1 args', aget (st_defs st) f = Some (types, ret) /\ check_equality st T ret = COk st1
      /\ check_args run args types st1 ctx = COk (args', st') /\ t' = FCall f args' (Some T).
  Proof.
    intros f args r H. simpl in H. destruct (aget (st_defs st) f) as [[types ret]|]; [|discriminate]. inv_ok; found.
  Qed.

  Lemma run_ctor : forall x args r, run (FCtor x args r) st ctx T = COk (t', st') ->
    exists st0 n targs types ty xs args' st1,
      (if eager then ty_check T st else COk st) = COk st0 /\ T = FDecl n targs
      /\ aget (st_ctors st0) (x ++ print_targs targs)%string = Some types
      /\ lookup_ty_for_xtor FData st0 (x ++ print_targs targs)%string = Some (ty, xs)
      /\ check_args run args types st0 ctx = COk (args', st1) /\ check_equality st1 T ty = COk st'
      /\ t' = FCtor x args' (Some T).
  Proof.
    intros x args r H. simpl in H. apply cbind_ok in H. destruct H as [st0 [H0 H]].
    destruct T as [|n targs]; [discriminate|].
    destruct (aget (st_ctors st0) (x ++ print_targs targs)%string) as [types|] eqn:Ec; [|discriminate].
    destruct (lookup_ty_for_xtor FData st0 (x ++ print_targs targs)%string) as [[ty xs]|] eqn:El; [|discriminate].
    inv_ok; found.
  Qed.

  Lemma run_dtor : forall s x targs args r, run (FDtor s x targs args r) st ctx T = COk (t', st') ->
    exists ty xs st1 s' st2 types ret args' st3,
      lookup_ty_for_xtor_or_template FCodata st x targs = COk (ty, xs, st1) /\ run s st1 ctx ty = COk (s', st2)
      /\ aget (st_dtors st2) (x ++ print_targs targs)%string = Some (types, ret)
      /\ check_args run args types st2 ctx = COk (args', st3) /\ check_equality st3 T ret = COk st'
      /\ t' = FDtor s' x targs args' (Some T).
  Proof.
    intros s x targs args r H. simpl in H.
    apply cbind_ok in H. destruct H as [[[ty xs] st1] [H1 H]]. apply cbind_ok in H. destruct H as [[s' st2] [H2 H]].
    destruct (aget (st_dtors st2) (x ++ print_targs targs)%string) as [[types ret]|] eqn:Ed; [|discriminate]. inv_ok; found.
  Qed.

  Lemma run_case : forall s targs cls r, run (FCase s targs cls r) st ctx T = COk (t', st') ->
    exists p0 x0 ns0 c0 b0 clr ty xs st1 s' st2 cls',
      cls = FClause p0 x0 ns0 c0 b0 :: clr
      /\ lookup_ty_for_xtor_or_template FData st x0 targs = COk (ty, xs, st1) /\ run s st1 ctx ty = COk (s', st2)
      /\ check_clauses true (print_targs targs) T xs (prep_clauses run cls) st2 ctx = COk (cls', [], st')
      /\ t' = FCase s' targs cls' (Some T).
  Proof.
    intros s targs cls r H. simpl in H. destruct cls as [|[p0 x0 ns0 c0 b0] clr]; [discriminate|].
    apply cbind_ok in H. destruct H as [[[ty xs] st1] [H1 H]]. apply cbind_ok in H. destruct H as [[s' st2] [H2 H]].
    apply cbind_ok in H. destruct H as [[[cls' leftover] st3] [H3 H]]. destruct leftover; [|discriminate].
    inversion H; subst. found.
  Qed.

  Lemma run_new : forall cls r, run (FNew cls r) st ctx T = COk (t', st') ->
    exists st0 n targs targs' dtors cls',
      (if eager then ty_check T st else COk st) = COk st0 /\ T = FDecl n targs
      /\ aget (st_types st0) (n ++ print_targs targs)%string = Some (FCodata, targs', dtors)
      /\ check_clauses false (print_targs targs) T dtors (prep_clauses run cls) st0 ctx = COk (cls', [], st')
      /\ t' = FNew cls' (Some T).
  Proof.
    intros cls r H. simpl in H. apply cbind_ok in H. destruct H as [st0 [H0 H]].
    destruct T as [|n targs]; [discriminate|].
    destruct (aget (st_types st0) (n ++ print_targs targs)%string) as [[[[|] targs'] dtors]|] eqn:Eg; try discriminate.
    apply cbind_ok in H. destruct H as [[[cls' leftover] st1] [H1 H]]. destruct leftover; [|discriminate].
    inversion H; subst. found.
  Qed.

  Lemma run_label : forall l t r, run (FLabel l t r) st ctx T = COk (t', st') ->
    exists b', run t st (ctx ++ [mkfb l FCns T]) T = COk (b', st') /\ t' = FLabel l b' (Some T).
  Proof. intros l t r H. simpl in H. inv_ok; found. Qed.

  Lemma run_goto : forall l t r, run (FGoto l t r) st ctx T = COk (t', st') ->
    exists cont b', lookup_covar ctx l = COk cont /\ run t st ctx cont = COk (b', st') /\ t' = FGoto l b' (Some T).
  Proof. intros l t r H. simpl in H. inv_ok; found. Qed.

  Lemma run_exit : forall a r, run (FExit a r) st ctx T = COk (t', st') ->
    exists b', run a st ctx FI64 = COk (b', st') /\ t' = FExit b' (Some T).
  Proof. intros a r H. simpl in H. inv_ok; found. Qed.

  Lemma run_paren : forall t, run (FParen t) st ctx T = COk (t', st') ->
    exists b', run t st ctx T = COk (b', st') /\ t' = FParen b'.
  Proof. intros t H. simpl in H. inv_ok; found. Qed.
End Runs.

(* one argument: a producer is checked against the type of its binding, a consumer must be a covariable of that type *)
Lemma run_args_cons : forall (chk : fterm -> checker) a ar b br st ctx args' st',
  check_args_with chk (a :: ar) (b :: br) st ctx = COk (args', st') ->
  match fbchi b with
  | FPrd => exists st1 a' st2 ar', ty_check (fbty b) st = COk st1 /\ chk a st1 ctx (fbty b) = COk (a', st2)
              /\ check_args_with chk ar br st2 ctx = COk (ar', st') /\ args' = a' :: ar'
  | FCns => exists v ann chi found st1 st2 ar',
              a = FVar v ann chi /\ match chi with Some FPrd => false | _ => true end = true
              /\ lookup_covar ctx v = COk found
              /\ match ann with Some t => check_equality st t found | None => COk st end = COk st1
              /\ check_equality st1 (fbty b) found = COk st2
              /\ check_args_with chk ar br st2 ctx = COk (ar', st')
              /\ args' = FVar v (Some found) (Some FCns) :: ar'
  end.
Proof.
  intros chk a ar b br st ctx args' st' H. simpl in H. destruct (fbchi b).
  - inv_ok; found.
  - destruct a as [v ann chi| | | | | | | | | | | | | |]; try discriminate.
    destruct chi as [[|]|]; try discriminate; inv_ok; found.
Qed.

Lemma run_args : forall (chk : fterm -> checker) args tys st ctx args' st',
  check_args chk args tys st ctx = COk (args', st') ->
  List.length args = List.length tys /\ check_args_with chk args tys st ctx = COk (args', st').
Proof.
  intros chk args tys st ctx args' st' H. unfold check_args in H.
  destruct (Nat.eqb (List.length tys) (List.length args)) eqn:E; [|discriminate].
  apply PeanoNat.Nat.eqb_eq in E. auto.
Qed.

(* one round of the clause loop: the clause of the next xtor is taken out, its binders get the types of the
   instance signature, its body is checked in the extended context *)
Lemma run_clauses_cons : forall is_case sfx T x xr pcls st ctx cls' leftover st',
  check_clauses is_case sfx T (x :: xr) pcls st ctx = COk (cls', leftover, st') ->
  exists cl pcls' sg bty body' st1 rest,
    pc_xtor cl = x /\ Permutation (cl :: pcls') pcls
    /\ (if is_case then aget (st_ctors st) (x ++ sfx)%string = Some sg /\ bty = T
        else aget (st_dtors st) (x ++ sfx)%string = Some (sg, bty))
    /\ names_no_dups (pc_names cl) = COk tt
    /\ List.length (pc_names cl) = List.length sg
    /\ pc_chk cl st (ctx ++ zip_names (pc_names cl) sg) bty = COk (body', st1)
    /\ check_clauses is_case sfx T xr pcls' st1 ctx = COk (rest, leftover, st')
    /\ cls' = FClause (pc_pol cl) (pc_xtor cl) (pc_names cl) (zip_names (pc_names cl) sg) body' :: rest.
Proof.
  intros is_case sfx T x xr pcls st ctx cls' leftover st' H. simpl in H.
  destruct (swap_remove_first (fun c => String.eqb (pc_xtor c) x) pcls) as [[cl pcls']|] eqn:Es; [|discriminate].
  apply swap_remove_first_spec in Es. destruct Es as [Hx Hperm]. apply String.eqb_eq in Hx.
  apply cbind_ok in H. destruct H as [[sg bty] [Hsig H]].
  apply cbind_ok in H. destruct H as [[] [Hnd H]].
  apply cbind_ok in H. destruct H as [cctx [Hadd H]].
  apply cbind_ok in H. destruct H as [[body' st1] [Hbody H]].
  apply cbind_ok in H. destruct H as [[[rest left'] st2] [Hrest H]]. inversion H; subst.
  unfold add_types in Hadd.
  destruct (Nat.eqb (List.length (pc_names cl)) (List.length sg)) eqn:Elen; [|discriminate].
  apply PeanoNat.Nat.eqb_eq in Elen. inversion Hadd; subst cctx.
  exists cl, pcls', sg, bty, body', st1, rest. repeat split; auto.
  destruct is_case.
  - destruct (aget (st_ctors st) (pc_xtor cl ++ sfx)%string); inversion Hsig; auto.
  - destruct (aget (st_dtors st) (pc_xtor cl ++ sfx)%string) as [[? ?]|]; inversion Hsig; auto.
Qed.

Lemma run_def : forall eager d st d' st', def_check_gen eager d st = COk (d', st') ->
  exists st1 st2 st3 body',
    ctx_no_dups (fdctx d) = COk tt /\ ctx_check (fdctx d) st = COk st1 /\ ty_check (fdret d) st1 = COk st2
    /\ main_ret_check d st2 = COk st3 /\ check_term_gen eager (fdbody d) st3 (fdctx d) (fdret d) = COk (body', st')
    /\ d' = mkfdef (fdname d) (fdctx d) (fdret d) body'.
Proof.
  intros eager d st d' st' H. unfold def_check_gen in H. apply cbind_ok in H. destruct H as [[] [Hnd H]].
  apply cbind_ok in H. destruct H as [st1 [H1 H]]. apply cbind_ok in H. destruct H as [st2 [H2 H]].
  apply cbind_ok in H. destruct H as [st3 [H3 H]]. apply cbind_ok in H. destruct H as [[body' st4] [H4 H]].
  inversion H; subst. found.
Qed.
Lemma run_defs_cons : forall eager d r st ds' st', check_defs_gen eager (d :: r) st = COk (ds', st') ->
  exists d' st1 r', def_check_gen eager d st = COk (d', st1) /\ check_defs_gen eager r st1 = COk (r', st')
    /\ ds' = d' :: r'.
Proof.
  intros eager d r st ds' st' H. simpl in H. apply cbind_ok in H. destruct H as [[d' st1] [H1 H]].
  apply cbind_ok in H. destruct H as [[r' st2] [H2 H]]. inversion H; subst. found.
Qed.
Lemma run_check : forall eager p q, check_gen eager p = COk q ->
  exists st defs st1 das cos,
    build_symbol_table p = COk st /\ check_type_decls (fpdecls p) st = COk tt
    /\ check_defs_gen eager (defs_of (fpdecls p)) st = COk (defs, st1)
    /\ collect_types st1 (st_types st1) = COk (das, cos)
    /\ q = mkfcprog (sort_by_name fdaname das) (sort_by_name fcoaname cos) defs.
Proof.
  intros eager p q H. unfold check_gen in H. apply cbind_ok in H. destruct H as [st [Hb H]].
  unfold check_with_table_gen in H. apply cbind_ok in H. destruct H as [[] [Hd H]].
  apply cbind_ok in H. destruct H as [[defs st1] [Hdefs H]]. apply cbind_ok in H. destruct H as [[das cos] [Hc H]].
  inversion H; subst. found.
Qed.

Definition chk_ann (chk : checker) (t : fterm) : Prop :=
  forall st ctx T t' st', chk st ctx T = COk (t', st') -> ann_of t' t /\ annotated_fterm t' = true.

Definition all_annotated (l : list fterm) : bool := forallb annotated_fterm l.
Definition all_annotated_cls (l : list fclause) : bool := forallb (fun c => annotated_fterm (clause_body c)) l.
Lemma annotated_args_eq : forall l,
  (fix go (l : list fterm) : bool := match l with [] => true | y :: r => annotated_fterm y && go r end) l = all_annotated l.
Proof. induction l; simpl; [reflexivity|]. rewrite IHl. reflexivity. Qed.
Lemma annotated_cls_eq : forall l,
  (fix go (l : list fclause) : bool :=
     match l with [] => true | FClause _ _ _ _ body :: r => annotated_fterm body && go r end) l = all_annotated_cls l.
Proof. induction l as [|[? ? ? ? ?] r IH]; simpl; [reflexivity|]. rewrite IH. reflexivity. Qed.

Lemma check_args_with_ann : forall (chk : fterm -> checker) args,
  Forall (fun a => chk_ann (chk a) a) args ->
  forall tys st ctx args' st', check_args_with chk args tys st ctx = COk (args', st') ->
  List.length args = List.length tys -> Forall2 ann_of args' args /\ all_annotated args' = true.
Proof.
  intros chk args HF. induction HF as [|a ar Ha _ IH]; intros tys st ctx args' st' H Hlen.
  - simpl in H. inv_ok. split; [constructor|reflexivity].
  - destruct tys as [|b br]; [simpl in Hlen; discriminate|]. simpl in Hlen.
    apply run_args_cons in H. destruct (fbchi b).
    + destruct H as (st1 & a' & st2 & ar' & _ & H2 & H3 & ->).
      destruct (Ha _ _ _ _ _ H2) as [A1 A2]. destruct (IH _ _ _ _ _ H3) as [B1 B2]; [lia|].
      split; [constructor; assumption|]. simpl. rewrite A2. exact B2.
    + destruct H as (v & ann & chi & found & st1 & st2 & ar' & -> & _ & _ & _ & _ & H3 & ->).
      destruct (IH _ _ _ _ _ H3) as [B1 B2]; [lia|].
      split; [constructor; [constructor|assumption]|exact B2].
Qed.

Lemma check_args_ann : forall (chk : fterm -> checker) args,
  Forall (fun a => chk_ann (chk a) a) args ->
  forall tys st ctx args' st', check_args chk args tys st ctx = COk (args', st') ->
  Forall2 ann_of args' args /\ all_annotated args' = true.
Proof.
  intros chk args HF tys st ctx args' st' H. apply run_args in H. destruct H as [E H].
  eapply check_args_with_ann; eauto.
Qed.

Definition clause_of (pc : pclause) : fclause := FClause (pc_pol pc) (pc_xtor pc) (pc_names pc) (pc_ctx pc) (pc_body pc).
Definition pc_ann (pc : pclause) : Prop := chk_ann (pc_chk pc) (pc_body pc).

Lemma check_clauses_ann : forall is_case sfx expected xtors pcls st ctx cls' leftover st',
  Forall pc_ann pcls ->
  check_clauses is_case sfx expected xtors pcls st ctx = COk (cls', leftover, st') ->
  (exists used, Permutation (used ++ leftover) pcls /\ Forall2 (clause_rel ann_of) cls' (map clause_of used))
  /\ all_annotated_cls cls' = true.
Proof.
  intros is_case sfx expected xtors. induction xtors as [|x xr IH]; intros pcls st ctx cls' leftover st' HF H.
  - simpl in H. inv_ok. split; [|reflexivity]. exists []. split; [apply Permutation_refl|constructor].
  - apply run_clauses_cons in H.
    destruct H as (cl & pcls' & sg & bty & body' & st1 & rest & _ & Hperm & _ & _ & _ & Hbody & Hrest & ->).
    assert (HF' : Forall pc_ann (cl :: pcls')).
    { eapply Permutation_Forall; [apply Permutation_sym; eassumption|assumption]. }
    inversion HF' as [|? ? Hcl HFr]; subst.
    destruct (Hcl _ _ _ _ _ Hbody) as [A1 A2].
    destruct (IH _ _ _ _ _ _ HFr Hrest) as [[used [Hp Hf]] B2].
    split; [|simpl; rewrite A2; exact B2].
    exists (cl :: used). split.
    + simpl. eapply perm_trans; [apply perm_skip; eassumption|assumption].
    + simpl. constructor; [|assumption]. unfold clause_of. constructor. exact A1.
Qed.

Lemma prep_clauses_map : forall chk cls, map clause_of (prep_clauses chk cls) = cls.
Proof. induction cls as [|[p x ns c b] r IH]; simpl; [reflexivity|]. rewrite IH. reflexivity. Qed.

Lemma prep_clauses_ann : forall (chk : fterm -> checker) cls,
  Forall (fun c => chk_ann (chk (clause_body c)) (clause_body c)) cls -> Forall pc_ann (prep_clauses chk cls).
Proof.
  intros chk cls HF. induction HF as [|[p x ns c b] r Hc _ IH]; simpl; constructor; [exact Hc|exact IH].
Qed.

Lemma clauses_result_ann : forall is_case sfx expected xtors (chk : fterm -> checker) cls st ctx cls' st',
  Forall (fun c => chk_ann (chk (clause_body c)) (clause_body c)) cls ->
  check_clauses is_case sfx expected xtors (prep_clauses chk cls) st ctx = COk (cls', [], st') ->
  (exists cls'', Forall2 (clause_rel ann_of) cls' cls'' /\ Permutation cls'' cls) /\ all_annotated_cls cls' = true.
Proof.
  intros is_case sfx expected xtors chk cls st ctx cls' st' HF H.
  destruct (check_clauses_ann _ _ _ _ _ _ _ _ _ _ (prep_clauses_ann chk cls HF) H) as [[used [Hp Hf]] B].
  split; [|exact B]. rewrite app_nil_r in Hp. exists (map clause_of used). split; [assumption|].
  rewrite <- (prep_clauses_map chk cls). apply Permutation_map. assumption.
Qed.

Theorem check_term_gen_ann : forall eager t, chk_ann (check_term_gen eager t) t.
Proof.
  intros eager t. induction t using fterm_ind'; unfold chk_ann; intros st ctx T t' st' Hc.
  - apply run_var in Hc. destruct Hc as (_ & found & st1 & _ & _ & _ & ->). split; [constructor|reflexivity].
  - apply run_lit in Hc. destruct Hc as [_ ->]. split; [constructor|reflexivity].
  - apply run_op in Hc. destruct Hc as (st1 & a' & st2 & b' & _ & H2 & H3 & ->).
    destruct (IHt1 _ _ _ _ _ H2) as [A1 A2]. destruct (IHt2 _ _ _ _ _ H3) as [B1 B2].
    split; [constructor; assumption|simpl; rewrite A2, B2; reflexivity].
  - apply run_ifc in Hc. destruct Hc as (a' & st1 & b' & st2 & th' & st3 & el' & H1 & H2 & H3 & H4 & ->).
    destruct (IHt1 _ _ _ _ _ H1) as [A1 A2]. destruct (IHt2 _ _ _ _ _ H3) as [C1 C2]. destruct (IHt3 _ _ _ _ _ H4) as [D1 D2].
    destruct b as [b0|], b' as [b1|]; try contradiction.
    + destruct (H _ eq_refl _ _ _ _ _ H2) as [B1 B2].
      split; [constructor; assumption|simpl; rewrite A2, B2, C2, D2; reflexivity].
    + split; [constructor; assumption|simpl; rewrite A2, C2, D2; reflexivity].
  - apply run_print in Hc. destruct Hc as (a' & st1 & n' & H1 & H2 & ->).
    destruct (IHt1 _ _ _ _ _ H1) as [A1 A2]. destruct (IHt2 _ _ _ _ _ H2) as [B1 B2].
    split; [constructor; assumption|simpl; rewrite A2, B2; reflexivity].
  - apply run_let in Hc. destruct Hc as (st1 & a' & st2 & b' & _ & H2 & H3 & ->).
    destruct (IHt1 _ _ _ _ _ H2) as [A1 A2]. destruct (IHt2 _ _ _ _ _ H3) as [B1 B2].
    split; [constructor; assumption|simpl; rewrite A2, B2; reflexivity].
  - apply run_call in Hc. destruct Hc as (types & ret & st1 & args' & _ & _ & H2 & ->).
    destruct (check_args_ann _ _ H _ _ _ _ _ H2) as [A1 A2].
    split; [constructor; assumption|simpl; rewrite annotated_args_eq, A2; reflexivity].
  - apply run_ctor in Hc. destruct Hc as (st0 & n & targs & types & ty & xs & args' & st1 & _ & _ & _ & _ & H1 & _ & ->).
    destruct (check_args_ann _ _ H _ _ _ _ _ H1) as [A1 A2].
    split; [constructor; assumption|simpl; rewrite annotated_args_eq, A2; reflexivity].
  - apply run_dtor in Hc. destruct Hc as (ty & xs & st1 & s' & st2 & types & ret & args' & st3 & _ & H2 & _ & H3 & _ & ->).
    destruct (IHt _ _ _ _ _ H2) as [A1 A2]. destruct (check_args_ann _ _ H _ _ _ _ _ H3) as [B1 B2].
    split; [constructor; assumption|simpl; rewrite annotated_args_eq, A2, B2; reflexivity].
  - apply run_case in Hc.
    destruct Hc as (p0 & x0 & ns0 & c0 & b0 & clr & ty & xs & st1 & s' & st2 & cls' & -> & _ & H2 & H3 & ->).
    destruct (IHt _ _ _ _ _ H2) as [A1 A2]. destruct (clauses_result_ann _ _ _ _ _ _ _ _ _ _ H H3) as [[cls'' [Hf Hp]] B2].
    split; [econstructor; eassumption|simpl; rewrite annotated_cls_eq, A2, B2; reflexivity].
  - apply run_new in Hc. destruct Hc as (st0 & n & targs & targs' & dtors & cls' & _ & _ & _ & H1 & ->).
    destruct (clauses_result_ann _ _ _ _ _ _ _ _ _ _ H H1) as [[cls'' [Hf Hp]] B2].
    split; [econstructor; eassumption|simpl; rewrite annotated_cls_eq, B2; reflexivity].
  - apply run_label in Hc. destruct Hc as (b' & H1 & ->). destruct (IHt _ _ _ _ _ H1) as [A1 A2].
    split; [constructor; assumption|simpl; rewrite A2; reflexivity].
  - apply run_goto in Hc. destruct Hc as (cont & b' & _ & H1 & ->). destruct (IHt _ _ _ _ _ H1) as [A1 A2].
    split; [constructor; assumption|simpl; rewrite A2; reflexivity].
  - apply run_exit in Hc. destruct Hc as (b' & H1 & ->). destruct (IHt _ _ _ _ _ H1) as [A1 A2].
    split; [constructor; assumption|simpl; rewrite A2; reflexivity].
  - apply run_paren in Hc. destruct Hc as (b' & H1 & ->). destruct (IHt _ _ _ _ _ H1) as [A1 A2].
    split; [constructor; assumption|exact A2].
Qed.

Definition def_ann (d' d : fdef) : Prop :=
  fdname d' = fdname d /\ fdctx d' = fdctx d /\ fdret d' = fdret d /\ ann_of (fdbody d') (fdbody d).

Lemma check_defs_gen_ann : forall eager ds st ds' st',
  check_defs_gen eager ds st = COk (ds', st') ->
  Forall2 def_ann ds' ds /\ forallb (fun d => annotated_fterm (fdbody d)) ds' = true.
Proof.
  intros eager ds. induction ds as [|d r IH]; intros st ds' st' H.
  - simpl in H. inv_ok. split; [constructor|reflexivity].
  - apply run_defs_cons in H. destruct H as (d' & st1 & r' & H1 & H2 & ->).
    apply run_def in H1. destruct H1 as (s1 & s2 & s3 & body' & _ & _ & _ & _ & Hb & ->).
    destruct (check_term_gen_ann _ _ _ _ _ _ _ Hb) as [A1 A2]. destruct (IH _ _ _ H2) as [B1 B2].
    split; [constructor; [repeat split; assumption|assumption]|simpl; rewrite A2; exact B2].
Qed.

Theorem check_gen_annotates : forall eager p q,
  check_gen eager p = COk q -> Forall2 def_ann (fcpdefs q) (defs_of (fpdecls p)).
Proof.
  intros eager p q H. apply run_check in H. destruct H as (st & defs & st1 & das & cos & _ & _ & Hd & _ & ->).
  exact (proj1 (check_defs_gen_ann _ _ _ _ _ Hd)).
Qed.
Theorem check_gen_annotated : forall eager p q, check_gen eager p = COk q -> annotated_fcprog q = true.
Proof.
  intros eager p q H. apply run_check in H. destruct H as (st & defs & st1 & das & cos & _ & _ & Hd & _ & ->).
  exact (proj2 (check_defs_gen_ann _ _ _ _ _ Hd)).
Qed.
