(* C11 on x86-64, part (i): the code the model of axcut2backend::parallel_moves emits through the
   x86-64 back end (x_mov, x_store_temporary, x_restore_temporary, x_contains_spill_edge),
   executed on the ISA semantics, performs the assignment simultaneously.

   Method: a simulation between the abstract machine of Model/ParMoves.v (one separate scratch
   cell) and the ISA state, one root of the spanning forest at a time.  The scratch cell of a root
   is rcx when x_contains_spill_edge is false and the reserved spill slot SPILL_TEMP when it is
   true; rcx doubles as the staging register of spill-to-spill moves, which is sound because such
   a move occurs in a root only when x_contains_spill_edge is true (lemma tree_spill_free). *)
From Coq Require Import List ZArith NArith String Bool Lia FMapPositive.
From SCC Require Import Base.Sexp Lang.AxSyn Sem.AxSem Model.ParMoves Model.Backend Model.X86 Sem.X86Sem
     Generated.Constants Proof.X86State Proof.X86Sel Proof.ParMovesScratch.
Import ListNotations.
Open Scope Z_scope.

Notation xeqb := (teqb x86_backend).
Definition aval := option Z.
Definition astate := state xtemp aval.

Lemma xeqb_is a b : xeqb a b = xtemp_eqb a b.
Proof.
  unfold teqb; cbn [b_tcompare x86_backend x86_backend_with]. destruct a as [x|x], b as [y|y]; cbn; auto;
    destruct (N.compare_spec x y) as [->|H|H]; try (now rewrite N.eqb_refl);
    symmetry; apply N.eqb_neq; lia.
Qed.
Lemma xeqb_spec a b : reflect (a = b) (xeqb a b).
Proof. rewrite xeqb_is. apply xtemp_eqb_spec. Qed.

(* a temporary that holds (half of) a variable: not rsp, not the scratch register, not the scratch slot *)
Definition var_temp (t : xtemp) : Prop := loc_ok t /\ t <> XR TEMP /\ t <> XS SPILL_TEMP.
Definition is_spill (t : xtemp) : bool := match t with XS _ => true | XR _ => false end.

Lemma slot0_ok : slot_ok SPILL_TEMP. Proof. reflexivity. Qed.

(* what stays fixed: everything but registers and spill slots *)
Definition same_frame (s s' : xstate) (sp : Z) : Prop :=
  heap s' = heap s /\ out s' = out s /\ flags s' = flags s /\ hw s' = hw s /\
  (forall k, (forall p, slot_ok p -> k <> key (slot_addr sp p)) -> PM.find k (stack s') = PM.find k (stack s)).
Lemma same_frame_refl s sp : same_frame s s sp.
Proof. repeat split; auto. Qed.
Lemma same_frame_trans s1 s2 s3 sp : same_frame s1 s2 sp -> same_frame s2 s3 sp -> same_frame s1 s3 sp.
Proof.
  intros (A1 & B1 & C1 & D1 & E1) (A2 & B2 & C2 & D2 & E2). repeat split; try congruence.
  intros k Hk. rewrite E2, E1; auto.
Qed.
Lemma same_frame_rset s sp r v : same_frame s (rset s r v) sp.
Proof. repeat split; auto. Qed.
Lemma same_frame_sset s sp p v : slot_ok p -> same_frame s (sset s sp p v) sp.
Proof.
  intros P. repeat split; auto. intros k Hk. specialize (Hk p P). unfold sset; destruct v; cbn [stack].
  - apply PM.gso. exact Hk.
  - apply PM.gro. exact Hk.
Qed.
Lemma same_frame_lset s sp t v : loc_ok t -> same_frame s (lset s sp t v) sp.
Proof. destruct t; cbn; intros; [apply same_frame_rset|now apply same_frame_sset]. Qed.

Definition scratch_val (f : bool) (s : xstate) (sp : Z) : aval :=
  if f then sget s sp SPILL_TEMP else rget s TEMP.
Definition sim (f : bool) (c : astate) (s : xstate) (sp : Z) : Prop :=
  (forall l, var_temp l -> lget s sp l = fst c l) /\ scratch_val f s sp = snd c.

Definition pinstr_ok (f : bool) (i : pinstr xtemp) : Prop :=
  match i with
  | Mov _ d s => var_temp d /\ var_temp s /\ (f = false -> is_spill d && is_spill s = false)
  | Save _ t | Restore _ t => var_temp t
  end.

Section Sim.
Variable im : image.

(* the scratch cell of a root is a location like any other, and saving / restoring are moves to / from it *)
Definition scratch (f : bool) : xtemp := if f then XS SPILL_TEMP else XR TEMP.
Lemma scratch_val_lget f s sp : scratch_val f s sp = lget s sp (scratch f).
Proof. destruct f; reflexivity. Qed.
Lemma store_temporary_mov t f : x_store_temporary t f = x_mov (scratch f) t.
Proof. destruct t, f; reflexivity. Qed.
Lemma restore_temporary_mov t f : x_restore_temporary t f = x_mov t (scratch f).
Proof. destruct t, f; reflexivity. Qed.

(* x_mov between any two locations; rcx is used (and lost) only for a spill-to-spill move *)
Lemma mov_loc_ok s sp d src :
  frame_ok s sp -> loc_ok d -> loc_ok src ->
  exists s', exec_straight im (x_mov d src) s = Some s' /\ lget s' sp d = lget s sp src /\
    (forall l, loc_ok l -> l <> d -> (is_spill d && is_spill src = true -> l <> XR TEMP) -> lget s' sp l = lget s sp l) /\
    frame_ok s' sp /\ same_frame s s' sp.
Proof.
  intros F D S. assert (SP : sp_ok sp) by apply F.
  unfold x_mov. destruct src as [sr|sq]; [|destruct d as [tr|tq]].
  - rewrite (move_from_register_ok im s sp d sr F D). eexists; split; [reflexivity|].
    split; [apply lget_lset_same|]. split; [|split; [apply frame_ok_lset; auto|apply same_frame_lset; auto]].
    intros l L N _. apply lget_lset_other; auto.
  - rewrite (move_to_register_ok im s sp tr (XS sq) F S). eexists; split; [reflexivity|].
    split; [apply rget_rset_same|]. split; [|split; [apply frame_ok_rset; [exact D|exact F]|apply same_frame_rset]].
    intros l L N _. apply lget_rset_other. exact N.
  - rewrite exec_straight_app, (move_to_register_ok im s sp TEMP (XS sq) F S).
    assert (F1 : frame_ok (rset s TEMP (lget s sp (XS sq))) sp) by (apply frame_ok_rset; [discriminate|exact F]).
    rewrite (move_from_register_ok im _ sp (XS tq) TEMP F1 D). eexists; split; [reflexivity|].
    rewrite rget_rset_same. split; [apply lget_lset_same|]. split; [|split; [apply frame_ok_lset; auto|]].
    + intros l L N NT. rewrite lget_lset_other by auto. apply lget_rset_other. apply NT. reflexivity.
    + eapply same_frame_trans; [apply same_frame_rset|apply same_frame_lset; auto].
Qed.

Lemma sim_step f i c s sp :
  frame_ok s sp -> pinstr_ok f i -> sim f c s sp ->
  exists s', exec_straight im (emit_pinstr x86_backend f i) s = Some s' /\
             sim f (ParMoves.step xtemp xeqb aval c i) s' sp /\ frame_ok s' sp /\ same_frame s s' sp.
Proof.
  intros F OK (SV & SS). rewrite scratch_val_lget in SS.
  assert (SC : loc_ok (scratch f)) by (destruct f; [exact slot0_ok|discriminate]).
  assert (NSC : forall l, var_temp l -> l <> scratch f) by (intros l (_ & N1 & N0); destruct f; assumption).
  (* a move between variable temporaries and the scratch location keeps all the others of these *)
  assert (MV : forall d src, loc_ok d -> loc_ok src -> (f = false -> is_spill d && is_spill src = false) ->
            exists s', exec_straight im (x_mov d src) s = Some s' /\ lget s' sp d = lget s sp src /\
              (forall l, var_temp l \/ l = scratch f -> l <> d -> lget s' sp l = lget s sp l) /\
              frame_ok s' sp /\ same_frame s s' sp).
  { intros d src D S NS. destruct (mov_loc_ok s sp d src F D S) as (s' & E & V & K & F' & SF).
    exists s'. split; [exact E|]. split; [exact V|]. split; [|auto].
    intros l HL N. apply K; [destruct HL as [VL| ->]; [apply VL|exact SC]|exact N|].
    intros B. destruct f; [|rewrite NS in B by reflexivity; discriminate].
    destruct HL as [VL| ->]; [apply VL|discriminate]. }
  destruct i as [d src|t|t]; cbn [emit_pinstr b_mov b_store_temporary b_restore_temporary x86_backend x86_backend_with pinstr_ok ParMoves.step] in *.
  - destruct OK as (VD & VS & NS). destruct (MV d src (proj1 VD) (proj1 VS) NS) as (s' & E & V & K & F' & SF).
    exists s'. split; [exact E|]. split; [|auto]. split; cbn [fst snd].
    + intros l VL. unfold upd. destruct (xeqb_spec l d) as [->|N]; [rewrite V; apply SV; exact VS|].
      rewrite K by auto. apply SV; exact VL.
    + rewrite scratch_val_lget, K; [exact SS|now right|apply not_eq_sym, NSC, VD].
  - rewrite store_temporary_mov. destruct (MV (scratch f) t SC (proj1 OK)) as (s' & E & V & K & F' & SF); [now intros ->|].
    exists s'. split; [exact E|]. split; [|auto]. split; cbn [fst snd].
    + intros l VL. rewrite K by auto. apply SV; exact VL.
    + rewrite scratch_val_lget, V. apply SV, OK.
  - rewrite restore_temporary_mov. destruct (MV t (scratch f) (proj1 OK) SC) as (s' & E & V & K & F' & SF).
    { intros ->. apply andb_false_r. }
    exists s'. split; [exact E|]. split; [|auto]. split; cbn [fst snd].
    + intros l VL. unfold upd. destruct (xeqb_spec l t) as [->|N]; [rewrite V; exact SS|].
      rewrite K by auto. apply SV; exact VL.
    + rewrite scratch_val_lget, K; [exact SS|now right|apply not_eq_sym, NSC, OK].
Qed.

Lemma sim_list f is : forall c s sp,
  Forall (pinstr_ok f) is -> frame_ok s sp -> sim f c s sp ->
  exists s', exec_straight im (flat_map (emit_pinstr x86_backend f) is) s = Some s' /\
             sim f (exec xtemp xeqb aval is c) s' sp /\ frame_ok s' sp /\ same_frame s s' sp.
Proof.
  induction is as [|i is IH]; intros c s sp OK F SIM.
  - exists s. cbn. split; [reflexivity|]. split; [exact SIM|]. split; [exact F|apply same_frame_refl].
  - inversion OK as [|? ? OKi OKr]; subst. cbn [flat_map]. rewrite exec_straight_app.
    destruct (sim_step f i c s sp F OKi SIM) as (s1 & E1 & S1 & F1 & U1). rewrite E1.
    destruct (IH _ s1 sp OKr F1 S1) as (s2 & E2 & S2 & F2 & U2).
    exists s2. split; [exact E2|]. split; [exact S2|]. split; [exact F2|]. eapply same_frame_trans; eauto.
Qed.
End Sim.

(* mode = the parent is a spill slot; a tree without spill edge contains no spill-to-spill move *)
Lemma tree_spill_free tr : forall p rs,
  spill_edge (is_spill p) rs tr = false ->
  Forall (fun i => match i with Mov _ d s => is_spill d && is_spill s = false | _ => True end) (tree_moves xtemp p tr).
Proof.
  induction tr as [|t cs IH] using tree_ind2; intros p rs H; cbn [tree_moves].
  - repeat constructor.
  - apply Forall_app. split.
    + apply Forall_forall. intros i Hi. apply in_flat_map in Hi as (c & Hc & Hi).
      rewrite Forall_forall in IH. specialize (IH c Hc t rs).
      assert (spill_edge (is_spill t) rs c = false) as Hc'.
      { destruct t as [r|q]; cbn [spill_edge is_spill] in *.
        - destruct (existsb (spill_edge false rs) cs) eqn:E; [discriminate|].
          destruct (spill_edge false rs c) eqn:E'; auto.
          assert (existsb (spill_edge false rs) cs = true) by (apply existsb_exists; eauto). congruence.
        - destruct (is_spill p); [discriminate|].
          destruct (spill_edge true rs c) eqn:E'; auto.
          assert (existsb (spill_edge true rs) cs = true) by (apply existsb_exists; eauto). congruence. }
      specialize (IH Hc'). rewrite Forall_forall in IH. apply (IH i Hi).
    + constructor; [|constructor]. destruct t as [r|q]; cbn [is_spill andb]; auto.
      cbn [spill_edge] in H. destruct (is_spill p); [discriminate|reflexivity].
Qed.

Lemma root_spill_free k cs :
  x_contains_spill_edge (StartNode xtemp k cs) = false ->
  Forall (fun i => match i with Mov _ d s => is_spill d && is_spill s = false | _ => True end)
         (root_moves xtemp (StartNode xtemp k cs)).
Proof.
  intros H. cbn [root_moves]. apply Forall_app. split.
  - apply Forall_forall. intros i Hi. apply in_flat_map in Hi as (c & Hc & Hi).
    assert (spill_edge (is_spill k) (is_spill k) c = false) as Hc'.
    { destruct k as [r|q]; cbn [x_contains_spill_edge is_spill] in *.
      - destruct (spill_edge false false c) eqn:E'; auto.
        assert (existsb (spill_edge false false) cs = true) by (apply existsb_exists; eauto). congruence.
      - destruct (spill_edge true true c) eqn:E'; auto.
        assert (existsb (spill_edge true true) cs = true) by (apply existsb_exists; eauto). congruence. }
    pose proof (tree_spill_free c k (is_spill k) Hc') as T. rewrite Forall_forall in T. apply (T i Hi).
  - destruct (existsb _ cs); repeat constructor.
Qed.

Lemma root_pinstr_ok r :
  (forall i t, In i (root_moves xtemp r) -> In t (pinstr_temps xtemp i) -> var_temp t) ->
  Forall (pinstr_ok (x_contains_spill_edge r)) (root_moves xtemp r).
Proof.
  intros VT. apply Forall_forall. intros i Hi.
  destruct i as [d s|t|t]; cbn [pinstr_ok].
  - split; [apply (VT _ d Hi); now left|]. split; [apply (VT _ s Hi); right; now left|].
    intros Hf. destruct r as [k cs]. pose proof (root_spill_free k cs Hf) as SF.
    rewrite Forall_forall in SF. apply (SF _ Hi).
  - apply (VT _ t Hi). now left.
  - apply (VT _ t Hi). now left.
Qed.

(* the forest: the scratch location changes from root to root *)
Lemma sim_forest im rs : forall (c : astate) s sp,
  (forall r i t, In r rs -> In i (root_moves xtemp r) -> In t (pinstr_temps xtemp i) -> var_temp t) ->
  frame_ok s sp -> (forall l, var_temp l -> lget s sp l = fst c l) ->
  exists s', exec_straight im (flat_map (emit_root x86_backend) rs) s = Some s' /\
             (forall l, var_temp l -> lget s' sp l = fst (exec xtemp xeqb aval (flat_map (root_moves xtemp) rs) c) l) /\
             frame_ok s' sp /\ same_frame s s' sp.
Proof.
  induction rs as [|r rs IH]; intros c s sp VT F SV.
  - exists s. cbn. split; [reflexivity|]. split; [exact SV|]. split; [exact F|apply same_frame_refl].
  - cbn [flat_map]. rewrite exec_straight_app, exec_app. unfold emit_root at 1.
    set (f := b_contains_spill_edge x86_backend r).
    assert (OK : Forall (pinstr_ok f) (root_moves xtemp r)).
    { apply root_pinstr_ok. intros i t Hi Ht. apply (VT r i t); auto. now left. }
    destruct (sim_list im f (root_moves xtemp r) (fst c, scratch_val f s sp) s sp OK F) as (s1 & E1 & (S1 & _) & F1 & U1).
    { split; [exact SV|reflexivity]. }
    rewrite E1.
    assert (SV1 : forall l, var_temp l -> lget s1 sp l = fst (exec xtemp xeqb aval (root_moves xtemp r) c) l).
    { intros l Hl. rewrite (S1 l Hl). destruct c as [st sc]. cbn [fst].
      now rewrite (root_scratch_indep xtemp xeqb aval r st (scratch_val f s sp) sc). }
    destruct (IH _ s1 sp (fun r' i t Hr => VT r' i t (or_intror Hr)) F1 SV1) as (s2 & E2 & S2 & F2 & U2).
    exists s2. split; [exact E2|]. split; [exact S2|]. split; [exact F2|]. eapply same_frame_trans; eauto.
Qed.

Theorem x86_parallel_moves_ok im (A : amap xtemp) code s sp :
  indeg1 xtemp xeqb A -> nodup_targets xtemp xeqb A ->
  (forall t, In t (map fst A) \/ In t (all_targets xtemp A) -> var_temp t) ->
  parallel_moves_code x86_backend A = Ok code ->
  frame_ok s sp ->
  exists s', exec_straight im code s = Some s' /\
    (forall a b, edge xtemp xeqb A a b -> lget s' sp b = lget s sp a) /\
    (forall u, var_temp u -> (forall a, ~ edge xtemp xeqb A a u) -> lget s' sp u = lget s sp u) /\
    frame_ok s' sp /\ same_frame s s' sp.
Proof.
  intros ID NT VT PC F. unfold parallel_moves_code in PC.
  destruct (spanning_forest xtemp xeqb _ A) as [rs|] eqn:SF; [|discriminate]. inversion PC; subst code; clear PC.
  set (c0 := ((fun l => lget s sp l, None) : astate)).
  destruct (sim_forest im rs c0 s sp) as (s' & E & SV & F' & U); auto.
  { intros r i t Hr Hi Ht. apply VT. eapply (spanning_forest_temps xtemp xeqb xeqb_spec); eauto. }
  assert (PM : parallel_moves xtemp xeqb (List.length (all_targets xtemp A) + 2) A = Some (flat_map (root_moves xtemp) rs))
    by (unfold parallel_moves; now rewrite SF).
  destruct (parallel_moves_correct xtemp xeqb xeqb_spec aval _ A _ (fun l => lget s sp l) None ID NT PM) as (P1 & P2).
  exists s'. split; [exact E|]. split; [|split; [|split; [exact F'|exact U]]].
  - intros a b Eab. rewrite SV; [apply (P1 a b Eab)|]. apply VT. right. eapply edge_all_targets; eauto.
  - intros u Hu Hn. rewrite SV by exact Hu. apply (P2 u Hn).
Qed.

(* the emitted code exists for every such map (the recursion of the Rust code terminates) *)
Theorem x86_parallel_moves_total (A : amap xtemp) :
  indeg1 xtemp xeqb A -> exists code, parallel_moves_code x86_backend A = Ok code.
Proof.
  intros ID. unfold parallel_moves_code.
  pose proof (parallel_moves_terminates xtemp xeqb xeqb_spec A ID) as H. unfold parallel_moves in H.
  destruct (spanning_forest xtemp xeqb _ A); [eexists; reflexivity|]. exfalso. apply H. reflexivity.
Qed.
