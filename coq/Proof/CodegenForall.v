(* A generic "every piece of emitted code comes from a back-end method" theorem for
   Backend.code_statement / translate / compile: if a predicate Q on instruction lists contains [],
   is closed under ++, and holds of the output of every back-end method whenever the temporaries
   handed to it satisfy T (T holds of everything temporary_from_position hands out, of b_temp and
   of b_return1), then Q holds of the code of every statement and of every program.
   Used for C13 on AArch64 (Q = SP is only moved inside the print bracket, 16-byte aligned at every
   SP-relative access, and back at its body value at every label and branch). *)
From Coq Require Import List ZArith NArith String Bool Lia.
From SCC Require Import Base.Sexp Lang.AxSyn Model.ParMoves Model.Backend Proof.LinBasics Proof.SubstGraph Proof.BackendInv.
From SCC Require Proof.A64PM.
Import ListNotations.
Open Scope list_scope.

Section Forall.
Context {Code Temp : Type} (B : backend Code Temp).
Hypothesis Heq : forall a b, b_tcompare B a b = Datatypes.Eq <-> a = b.
Variable T : Temp -> Prop.
Variable Q : list Code -> Prop.
Hypothesis Qnil : Q [].
Hypothesis Qapp : forall a b, Q a -> Q b -> Q (a ++ b).
Hypothesis Ttfp : forall p t, b_temporary_from_position B p = Ok t -> T t.
Hypothesis Ttemp : T (b_temp B).
Hypothesis Tret : T (b_return1 B).
Hypothesis m_label : forall l, Q [b_label B l].
Hypothesis m_mark : forall c, Q (b_mark B c).
Hypothesis m_jump : forall t, T t -> Q (b_jump B t).
Hypothesis m_jump_label : forall l, Q (b_jump_label B l).
Hypothesis m_jump_label_fixed : forall l, Q (b_jump_label_fixed B l).
Hypothesis m_jcc2 : forall s a b l, T a -> T b -> Q (b_jcc2 B s a b l).
Hypothesis m_jcc1 : forall s a l, T a -> Q (b_jcc1 B s a l).
Hypothesis m_load_immediate : forall t i, T t -> Q (b_load_immediate B t i).
Hypothesis m_load_label : forall t l, T t -> Q (b_load_label B t l).
Hypothesis m_add_and_jump : forall t i, T t -> Q (b_add_and_jump B t i).
Hypothesis m_arith : forall o t a b, T t -> T a -> T b -> Q (b_arith B o t a b).
Hypothesis m_mov : forall t s, T t -> T s -> Q (b_mov B t s).
Hypothesis m_print : forall nl t c, T t -> Q (b_print B nl t c).
Hypothesis m_erase : forall t lc, T t -> Q (fst (b_erase B t lc)).
Hypothesis m_share : forall t n lc, T t -> Q (fst (b_share_n B t n lc)).
Hypothesis m_store : forall a r lc c lc', b_store B a r lc = Ok (c, lc') -> Q c.
Hypothesis m_load : forall a r lc c lc', b_load B a r lc = Ok (c, lc') -> Q c.
Hypothesis m_store_temporary : forall t f, T t -> Q (b_store_temporary B t f).
Hypothesis m_restore_temporary : forall t f, T t -> Q (b_restore_temporary B t f).

Lemma Q_flat_map {X} (f : X -> list Code) l : (forall x, In x l -> Q (f x)) -> Q (flat_map f l).
Proof. induction l as [|x l IH]; intros H; cbn [flat_map]; [exact Qnil|]. apply Qapp; [apply H; left; reflexivity|apply IH; intros; apply H; right; assumption]. Qed.

Lemma Qcons x l : Q [x] -> Q l -> Q (x :: l).
Proof. intros A C. apply (Qapp [x] l A C). Qed.

Lemma vt_T n c id t : variable_temporary B n c id = Ok t -> T t.
Proof. unfold variable_temporary. destruct (position_of c id 0); [apply Ttfp|discriminate]. Qed.
Lemma rmap_T n c l : forall ts, rmap (fun t => variable_temporary B n c t) l = Ok ts -> Forall T ts.
Proof.
  induction l as [|x l IH]; intros ts H; cbn [rmap] in H.
  - inversion H; constructor.
  - ub H. ub H. inversion H; subst. constructor; [eapply vt_T; eauto|apply IH; reflexivity].
Qed.

Lemma urc_Q v c k lc code lc' : update_reference_count B v c k lc = Ok (code, lc') -> Q code.
Proof.
  unfold update_reference_count. intros H. ub H. pose proof (vt_T _ _ _ _ E) as Tx.
  destruct k as [|[|k]]; inversion H; subst.
  - rewrite (surjective_pairing (b_erase B x lc)) in H1. inversion H1; subst. apply m_erase; exact Tx.
  - exact Qnil.
  - rewrite (surjective_pairing (b_share_n B x _ lc)) in H1. inversion H1; subst. apply m_share; exact Tx.
Qed.
Lemma cwc_Q c : forall tm lc code lc', code_weakening_contraction B tm c lc = Ok (code, lc') -> Q code.
Proof.
  induction tm as [|[b tg] tm IH]; intros lc code lc' H; cbn [code_weakening_contraction] in H.
  - inversion H; subst. exact Qnil.
  - destruct (bchi b).
    + ub H. destruct x as [c1 lc1]. ub H. destruct x as [c2 lc2]. inversion H; subst. apply Qapp; [eapply urc_Q; eauto|eapply IH; eauto].
    + ub H. destruct x as [c1 lc1]. ub H. destruct x as [c2 lc2]. inversion H; subst. apply Qapp; [eapply urc_Q; eauto|eapply IH; eauto].
    + eapply IH; eauto.
Qed.

Lemma ins_T n c nc b tg m m' :
  A64PM.amap_ok Temp T m ->
  (dor k <- variable_temporary B n c (idn (bvar b));
   dor ts <- rmap (fun t => variable_temporary B n nc t) tg;
   Ok (map_insert (b_tcompare B) k (set_of_list (b_tcompare B) ts) m)) = Ok m' ->
  A64PM.amap_ok Temp T m'.
Proof.
  intros OK H. ub H. ub H. inversion H; subst. intros k ts Hin.
  apply In_map_insert in Hin as [E1|Hin]; [|apply OK; exact Hin].
  inversion E1; subst. split; [eapply vt_T; eauto|].
  apply Forall_forall. intros t Ht. apply (proj1 (In_set_of_list (b_tcompare B) Heq t x0)) in Ht.
  pose proof (rmap_T _ _ _ _ E0) as F. rewrite Forall_forall in F. auto.
Qed.
Lemma connections_T tm c nc am : connections B tm c nc = Ok am -> A64PM.amap_ok Temp T am.
Proof.
  unfold connections.
  assert (G : forall tm (rm : res (list (Temp * list Temp))),
            (forall m, rm = Ok m -> A64PM.amap_ok Temp T m) ->
            forall am, fold_left (fun rm bt =>
                dor m <- rm;
                let '(b, targets) := bt in
                match bchi b with
                | Ext => dor k <- variable_temporary B Snd c (idn (bvar b));
                         dor ts <- rmap (fun t => variable_temporary B Snd nc t) targets;
                         Ok (map_insert (b_tcompare B) k (set_of_list (b_tcompare B) ts) m)
                | _ => dor m1 <- (dor k <- variable_temporary B Fst c (idn (bvar b));
                                  dor ts <- rmap (fun t => variable_temporary B Fst nc t) targets;
                                  Ok (map_insert (b_tcompare B) k (set_of_list (b_tcompare B) ts) m));
                       dor k <- variable_temporary B Snd c (idn (bvar b));
                       dor ts <- rmap (fun t => variable_temporary B Snd nc t) targets;
                       Ok (map_insert (b_tcompare B) k (set_of_list (b_tcompare B) ts) m1)
                end) tm rm = Ok am -> A64PM.amap_ok Temp T am).
  { clear tm am. induction tm as [|[b tg] tm IH]; intros rm OK am H; cbn [fold_left] in H; [apply OK; exact H|].
    eapply IH; [|exact H]. intros m' Hm'. destruct rm as [m|e]; cbn [rbind] in Hm'; [|discriminate].
    specialize (OK m eq_refl).
    destruct (bchi b).
    - ub Hm'. eapply ins_T; [eapply ins_T; [exact OK|exact E]|exact Hm'].
    - ub Hm'. eapply ins_T; [eapply ins_T; [exact OK|exact E]|exact Hm'].
    - eapply ins_T; [exact OK|exact Hm']. }
  intros H. eapply G; [|exact H]. intros m E. inversion E; subst. intros k ts [].
Qed.

Lemma teqb_spec' a b : reflect (a = b) (teqb B a b).
Proof.
  unfold teqb. destruct (b_tcompare B a b) eqn:E; constructor.
  - now apply Heq.
  - intros H; apply Heq in H; congruence.
  - intros H; apply Heq in H; congruence.
Qed.
Lemma emit_pinstr_Q f i : A64PM.pinstr_ok Temp T i -> Q (emit_pinstr B f i).
Proof. destruct i; cbn [A64PM.pinstr_ok emit_pinstr]; intros H; [apply m_mov; tauto|apply m_store_temporary; exact H|apply m_restore_temporary; exact H]. Qed.
Lemma pmc_Q am code : A64PM.amap_ok Temp T am -> parallel_moves_code B am = Ok code -> Q code.
Proof.
  intros OK E. unfold parallel_moves_code in E.
  destruct (spanning_forest Temp (teqb B) (List.length (all_targets Temp am) + 2) am) as [forest|] eqn:SF; [|discriminate].
  inversion E; subst.
  assert (PM : parallel_moves Temp (teqb B) (List.length (all_targets Temp am) + 2) am = Some (flat_map (root_moves Temp) forest))
    by (unfold parallel_moves; now rewrite SF).
  pose proof (A64PM.parallel_moves_mentions Temp (teqb B) teqb_spec' T _ am _ OK PM) as MEN.
  apply Q_flat_map. intros r Hr. unfold emit_root. apply Q_flat_map. intros i Hi.
  apply emit_pinstr_Q. rewrite Forall_forall in MEN. apply MEN. apply in_flat_map. exists r. auto.
Qed.
Lemma exchange_Q tm c nc code : code_exchange B tm c nc = Ok code -> Q code.
Proof. unfold code_exchange. intros H. ub H. eapply pmc_Q; [eapply connections_T; eauto|exact H]. Qed.
Lemma code_table_Q cls base : Q (code_table B cls base).
Proof. unfold code_table. apply Q_flat_map. intros; apply m_jump_label_fixed. Qed.

Definition stmt_Q (s : stmt) : Prop :=
  forall types c lc code lc', code_statement B types s c lc = Ok (code, lc') -> Q code.

Lemma loop_Q types fresh ldf ctxf : (forall cx lc c lc', ldf cx lc = Ok (c, lc') -> Q c) ->
  forall cls, Forall (fun cl => stmt_Q (cl_body cl)) cls ->
  forall lc code lc', cl_loop B types fresh ldf ctxf cls lc = Ok (code, lc') -> Q code.
Proof.
  intros LD. induction 1 as [|[[xt cx] body] cls Hb _ IHc]; intros lc code lc' E; cbn [cl_loop] in E.
  - inversion E; subst. exact Qnil.
  - ubp E. ubp E. ubp E. inversion E; subst.
    apply Qcons; [apply m_label|]. apply Qapp; [eapply LD; eauto|]. apply Qapp; [eapply Hb; eauto|eapply IHc; eauto].
Qed.

Theorem code_statement_Q : forall s, stmt_Q s.
Proof.
  induction s using stmt_ind2; intros types c lc code lc' CS; cbn [code_statement] in CS; ub CS;
    destruct x as [body lcb]; inversion CS; subst; clear CS; cbn [fst snd]; apply Qapp; try apply m_mark.
  - (* Substitute *)
    ub E. destruct x as [c1 lc1]. ub E. ub E. destruct x0 as [c3 lc3]. inversion E; subst.
    apply Qapp; [eapply cwc_Q; eauto|]. apply Qapp; [eapply exchange_Q; eauto|eapply IHs; eauto].
  - inversion E; subst. apply m_jump_label.
  - (* Let *)
    ub E. ub E. ub E. destruct x1 as [rest arguments]. ub E. destruct x1 as [c1 lc1]. ub E. ub E. destruct x2 as [c3 lc3].
    inversion E; subst. apply Qapp; [eapply m_store; eauto|]. apply Qapp; [apply m_load_immediate; eapply vt_T; eauto|eapply IHs; eauto].
  - (* Switch *)
    ub E. ub E. destruct x0 as [c3 lc3]. inversion E; subst. clear E.
    apply Qapp; [|apply Qcons; [apply m_label|apply Qapp]].
    + destruct (Nat.leb _ 1); [inversion E0; subst; exact Qnil|]. ub E0. inversion E0; subst.
      pose proof (vt_T _ _ _ _ E) as Tx. repeat apply Qapp; auto.
    + destruct (Nat.leb _ 1); [exact Qnil|apply code_table_Q].
    + apply (loop_Q _ _ _ _ (fun cx => m_load cx _) _ H _ _ _ E1).
  - (* Create *)
    destruct env as [env|]; [|discriminate].
    ubp E. ubp E. ub E. ubp E. ubp E. inversion E; subst. clear E.
    apply Qapp; [eapply m_store; eauto|]. apply Qapp; [apply m_load_label; eapply vt_T; eauto|].
    apply Qapp; [eapply IHs; eauto|]. apply Qcons; [apply m_label|]. apply Qapp.
    + destruct (Nat.leb _ 1); [exact Qnil|apply code_table_Q].
    + match goal with HL : _ = Ok (?c5, lc') |- Q ?c5 => apply (loop_Q _ _ _ _ (m_load _) _ H _ _ _ HL) end.
  - (* Invoke *)
    ub E. ub E. pose proof (vt_T _ _ _ _ E0) as Tx. destruct (Nat.leb _ 1); [inversion E; subst; apply m_jump; exact Tx|].
    ub E. inversion E; subst. apply m_add_and_jump; exact Tx.
  - (* Literal *)
    ub E. ub E. destruct x0 as [c2 lc2]. inversion E; subst. apply Qapp; [apply m_load_immediate; eapply vt_T; eauto|eapply IHs; eauto].
  - (* Op *)
    ub E. ub E. ub E. ub E. destruct x2 as [c2 lc2]. inversion E; subst.
    apply Qapp; [apply m_arith; eapply vt_T; eauto|eapply IHs; eauto].
  - (* PrintI64 *)
    ub E. ub E. destruct x0 as [c2 lc2]. inversion E; subst. apply Qapp; [apply m_print; eapply vt_T; eauto|eapply IHs; eauto].
  - (* IfC *)
    ub E. ub E. ub E. destruct x1 as [c2 lc2]. ub E. destruct x1 as [c3 lc3]. inversion E; subst.
    pose proof (vt_T _ _ _ _ E0) as Ta.
    apply Qapp; [|apply Qapp; [eapply IHs2; eauto|apply Qcons; [apply m_label|eapply IHs1; eauto]]].
    destruct b as [b|]; [ub E1; inversion E1; subst; apply m_jcc2; [exact Ta|eapply vt_T; eauto]|inversion E1; subst; apply m_jcc1; exact Ta].
  - (* Exit *)
    ub E. inversion E; subst. apply Qapp; [apply m_mov; [exact Tret|eapply vt_T; eauto]|apply m_jump_label].
Qed.

Lemma translate_Q types : forall defs lc code lc', translate B types defs lc = Ok (code, lc') -> Q code.
Proof.
  induction defs as [|d defs IH]; intros lc code lc' H; cbn [translate] in H.
  - inversion H; subst. exact Qnil.
  - ub H. destruct x as [c1 lc1]. ub H. destruct x as [c2 lc2]. inversion H; subst.
    apply Qcons; [apply m_label|]. apply Qapp; [eapply code_statement_Q; eauto|eapply IH; eauto].
Qed.
Theorem compile_Q p lc code n lc' : compile B p lc = Ok (code, n, lc') -> Q code.
Proof.
  unfold compile. destruct (pdefs p) as [|d0 ds] eqn:D; [discriminate|]. intros H. ub H. destruct x as [c l]. inversion H; subst.
  eapply translate_Q; eauto.
Qed.
End Forall.
