(* C19, fun2core: the free-variable inclusion for ALL terms (no fragment, no scoping hypothesis):
     free bindings of  wc t cont   are typed occurrences of t (Model/SizeFun.v tocc) or free in cont,
     free bindings of  cmp t ty    are typed occurrences of t.
   Compiler-generated covariables are bound where they are introduced (default_compile, coclauses);
   `share` only removes free bindings from a continuation.  This is the unguarded form of
   Proof/Fun2CoreUB.v (which says more under scoping: the occurrence is THE binding in scope). *)
From Coq Require Import List ZArith NArith String Bool Lia.
From SCC Require Import Base.Sexp Lang.SynUtil Lang.FunSyn Lang.FunTy Lang.CoreSyn.
From SCC Require Import Model.Fun2Core Model.SizeFun Proof.Fun2CoreProof Proof.Fun2CoreTfv Proof.Fun2CoreInv.
From SCC Require Proof.Fun2CoreUB.
Import ListNotations.
Open Scope string_scope.
Open Scope list_scope.

Definition cont_cns (cont : cterm) : Prop := match cont with CMu c _ _ _ => c = CCns | _ => True end.

Section FV.
  Variable codata : list ctydecl.
  Variable cur : string.
  Notation wc' := (wc codata cur false).
  Notation cmp' := (cmp codata cur false).

  Lemma share_fvt : forall cont st k st', share cur cont st = Ok (k, st') -> cont_cns cont ->
    cont_cns k /\ forall bb, In bb (fvt k) -> In bb (fvt cont).
  Proof. exact (Fun2CoreUB.share_fvt cur). Qed.

  Definition occw (t : fterm) : Prop :=
    forall cont st s st', wc' t cont st = Ok (s, st') -> cont_cns cont ->
      forall bb, In bb (fvs s) -> In bb (tocc t) \/ In bb (fvt cont).
  Definition occc (t : fterm) : Prop :=
    forall ty st c st', cmp' t ty st = Ok (c, st') -> forall bb, In bb (fvt c) -> In bb (tocc t).

  Lemma occ_default : forall (w : cterm -> M cstmt) (l : list cbinding),
    (forall cont st s st', w cont st = Ok (s, st') -> cont_cns cont ->
       forall bb, In bb (fvs s) -> In bb l \/ In bb (fvt cont)) ->
    forall ty st c st', default_compile w ty st = Ok (c, st') -> forall bb, In bb (fvt c) -> In bb l.
  Proof.
    intros w l Hw ty st c st' H bb Hb. apply default_compile_inv in H.
    destruct H as [a [sta [s [Ha [Hs Hc]]]]]. subst c. apply fvt_mu_iff in Hb. destruct Hb as [Hb Hne].
    destruct (Hw _ _ _ _ Hs I bb Hb) as [Hg|Hg]; [exact Hg|]. apply fvt_var in Hg. simpl in Hne. congruence.
  Qed.

  (* the repaired placement of a continuation under binders (fix d5d4151): < mu a. w(a) | cont > *)
  Lemma occ_guard : forall binders (w : cterm -> M cstmt) lty (l : list cbinding),
    (forall cont st s st', w cont st = Ok (s, st') -> cont_cns cont ->
       forall bb, In bb (fvs s) -> In bb l \/ In bb (fvt cont)) ->
    forall cont st s st', guard_capture false binders w lty cont st = Ok (s, st') -> cont_cns cont ->
      forall bb, In bb (fvs s) -> In bb l \/ In bb (fvt cont).
  Proof.
    intros binders w lty l Hw cont st s st' H Hc bb Hb. apply guard_capture_inv in H.
    destruct H as [[_ H]|[_ [ty0 [a [sta [s0 [_ [Ha [_ [H ->]]]]]]]]]]; [eapply Hw; eauto|].
    apply fvs_cut in Hb. destruct Hb as [Hb|Hb]; [|right; exact Hb].
    apply fvt_mu_iff in Hb. destruct Hb as [Hb Hne].
    destruct (Hw _ _ _ _ H I bb Hb) as [Hg|Hg]; [left; exact Hg|]. apply fvt_var in Hg. simpl in Hne. congruence.
  Qed.

  Lemma occ_args : forall args, Forall occc args ->
    forall st l st', subst_with (fun y => cmp' y) args st = Ok (l, st') ->
    forall bb, In bb (fva l) -> In bb (flat_map occ_arg args).
  Proof.
    intros args H. induction H as [|y r Hy Hr IH]; intros st l st' Hs bb Hb.
    - simpl in Hs. apply mret_inv in Hs. destruct Hs; subst. apply fva_nil in Hb. contradiction.
    - apply subst_with_cons_inv in Hs. destruct Hs as [a [st1 [rest [Ha [Hrest Hl]]]]]. subst l.
      apply fva_cons in Hb. cbn [flat_map]. apply in_or_app. destruct Hb as [Hb|Hb].
      + left. apply compile_arg_inv in Ha. destruct Ha as [[v [ty [ty0 [Ey [Ety [Ea Est]]]]]]|[Hn [ty0 [c [Ety [Ec Ea]]]]]].
        * subst. apply fvt_var in Hb. subst bb. simpl. left. reflexivity.
        * subst a. assert (E : occ_arg y = tocc y).
          { unfold occ_arg, occ_arg_with. destruct y; try reflexivity. destruct chi as [[|]|]; try reflexivity. contradiction. }
          rewrite E. eapply Hy; eauto.
      + right. eapply IH; eauto.
  Qed.

  Lemma occ_clauses : forall cont1 cls, Forall (fun c => occw (clause_body c)) cls -> cont_cns cont1 ->
    forall st l st', clauses_with (fun b => wc' b) cont1 cls st = Ok (l, st') ->
    forall bb, In bb (fvc l) -> In bb (flat_map cl_occ cls) \/ In bb (fvt cont1).
  Proof.
    intros cont1 cls H Hc. induction H as [|c r Hy Hr IH]; intros st l st' Hs bb Hb.
    - simpl in Hs. apply mret_inv in Hs. destruct Hs; subst. apply fvc_nil in Hb. contradiction.
    - destruct c as [pl x names ctx body]. apply clauses_with_cons_inv in Hs.
      destruct Hs as [c' [st1 [rest [Ha [Hrest Hl]]]]]. subst l.
      apply compile_clause_inv in Ha. destruct Ha as [body' [Hbody Ec]]. subst c'.
      apply fvc_cons_iff in Hb. cbn [flat_map cl_occ]. rewrite in_app_iff. destruct Hb as [[Hb Hn]|Hb].
      + simpl in Hy. destruct (Hy _ _ _ _ Hbody Hc bb Hb) as [Hg|Hg]; tauto.
      + destruct (IH _ _ _ Hrest bb Hb) as [Hg|Hg]; tauto.
  Qed.

  Lemma occ_coclauses : forall cls, Forall (fun c => occw (clause_body c)) cls ->
    forall st l st', coclauses_with (fun b => wc' b) cls st = Ok (l, st') ->
    forall bb, In bb (fvc l) -> In bb (flat_map cl_occ cls).
  Proof.
    intros cls H. induction H as [|c r Hy Hr IH]; intros st l st' Hs bb Hb.
    - simpl in Hs. apply mret_inv in Hs. destruct Hs; subst. apply fvc_nil in Hb. contradiction.
    - destruct c as [pl x names ctx body]. apply coclauses_with_cons_inv in Hs.
      destruct Hs as [c' [st1 [rest [Ha [Hrest Hl]]]]]. subst l.
      apply compile_coclause_inv in Ha. destruct Ha as [ty0 [a [sta [body' [Ety [Hfr [Hbody Ec]]]]]]]. subst c'.
      apply fvc_cons_iff in Hb. cbn [flat_map cl_occ]. rewrite in_app_iff. destruct Hb as [[Hb Hn]|Hb].
      + simpl in Hy. destruct (Hy _ _ _ _ Hbody I bb Hb) as [Hg|Hg]; [left; exact Hg|].
        apply fvt_var in Hg. exfalso. apply Hn. apply in_or_app. right. left. symmetry. exact Hg.
      + right. eapply IH; eauto.
  Qed.

  Lemma occ_both : forall t, occw t /\ occc t.
  Proof.
    apply (wc_cmp_ind occw occc).
    - (* a value form is cut against the continuation *)
      intros t Hv Hc cont st s st' H _ bb Hb. destruct (wc_value_form _ _ _ _ _ _ _ _ Hv H) as [c [Hcmp ->]].
      apply fvs_cut in Hb. destruct Hb as [Hb|Hb]; [left; exact (Hc CI64 _ _ _ (Hcmp CI64) bb Hb) | right; exact Hb].
    - (* a statement form is compiled against a fresh covariable *)
      intros t Hs Hw ty st c st' H bb Hb. rewrite (cmp_stmt_form _ _ _ _ _ Hs) in H.
      exact (occ_default _ _ Hw _ _ _ _ H bb Hb).
    - (* FVar *)
      intros v ty chi ty0' st c st' H bb Hb. rewrite cmp_unfold in H. apply cmp_var_inv in H.
      destruct H as [ty0 [Ety [Es Est]]]. subst.
      apply fvt_var in Hb. subst bb. simpl. left. reflexivity.
    - (* FLit *)
      intros n ty0' st c st' H bb Hb. rewrite cmp_unfold in H. unfold cmp_lit in H.
      apply mret_inv in H. destruct H; subst. apply fvt_lit in Hb. contradiction.
    - (* FOp *)
      intros t1 o t2 C1 C2 ty0' st c st' H bb Hb. rewrite cmp_unfold in H. apply cmp_op_inv in H.
      destruct H as [a [st1 [b [Ha [Hb' Ec]]]]]. subst c.
      apply fvt_op in Hb. cbn [tocc]. rewrite in_app_iff. destruct Hb as [Hb|Hb].
      + left. eapply C1; eauto.
      + right. eapply C2; eauto.
    - (* FIfC *)
      intros s t1 b t2 t3 ty C1 Cb W2 W3 cont st s0 st' H0 Hc bb Hb. rewrite wc_unfold in H0. apply wc_ifc_inv in H0.
      destruct H0 as [cont1 [st0 [a [sta [b' [stb [t [stt [e [Hsh [Ha [Hbb [Ht [He Er]]]]]]]]]]]]]]. subst s0.
      assert (Hc1 : cont_cns cont1 /\ forall bb, In bb (fvt cont1) -> In bb (fvt cont)).
      { destruct (cont_is_small cont); [destruct Hsh; subst; auto | eapply share_fvt; eauto]. }
      destruct Hc1 as [Hc1 Hsub]. cbn [tocc]. rewrite !in_app_iff.
      apply fvs_ifc in Hb. destruct Hb as [Hb|[Hb|[Hb|Hb]]].
      + left. left. eapply C1; eauto.
      + left. right. left. destruct b as [b0|].
        * destruct Hbb as [b1 [Hb1 Eb]]. subst b'. simpl in Cb. eapply Cb; eauto.
        * destruct Hbb as [Eb _]. subst b'. contradiction.
      + destruct (W2 _ _ _ _ Ht Hc1 bb Hb) as [Hg|Hg]; [left; tauto | right; apply Hsub; exact Hg].
      + destruct (W3 _ _ _ _ He Hc1 bb Hb) as [Hg|Hg]; [left; tauto | right; apply Hsub; exact Hg].
    - (* FPrint *)
      intros nl t1 t2 ty C1 W2 cont st s0 st' H0 Hc bb Hb. rewrite wc_unfold in H0. apply wc_print_inv in H0.
      destruct H0 as [a [st1 [next [Ha [Hn Es]]]]]. subst s0. cbn [tocc]. rewrite in_app_iff.
      apply fvs_print in Hb. destruct Hb as [Hb|Hb].
      + left. left. eapply C1; eauto.
      + destruct (W2 _ _ _ _ Hn Hc bb Hb) as [Hg|Hg]; tauto.
    - (* FLet *)
      intros v vty t1 t2 ty W1 C1 W2 cont st s0 st' H0 Hc bb Hb. rewrite wc_unfold in H0.
      revert cont st s0 st' H0 Hc bb Hb. apply occ_guard.
      intros cont st s0 st' H0 Hc bb Hb. cbn [tocc]. rewrite in_app_iff.
      assert (Hbody : forall body st1, wc' t2 cont st = Ok (body, st1) ->
                forall bb, In bb (fvt (CMu CCns (new_id v) body (compile_ty vty))) ->
                In bb (tocc t2) \/ In bb (fvt cont)).
      { intros body st1 Hbody bb0 Hg. apply fvt_mu_iff in Hg. destruct Hg as [Hg Hne].
        exact (W2 _ _ _ _ Hbody Hc bb0 Hg). }
      destruct (ty_is_codata codata (compile_ty vty)) eqn:Hcd.
      + apply wc_let_inv_codata in H0; [|exact Hcd]. destruct H0 as [body [st1 [pb [Hbody0 [Hpb Es]]]]]. subst s0.
        apply fvs_cut in Hb. destruct Hb as [Hb|Hb].
        * left. left. eapply C1; eauto.
        * destruct (Hbody _ _ Hbody0 bb Hb); tauto.
      + apply wc_let_inv in H0; [|exact Hcd]. destruct H0 as [body [st1 [Hbody0 Hbound]]].
        destruct (W1 _ _ _ _ Hbound eq_refl bb Hb) as [Hg|Hg].
        * left. left. exact Hg.
        * destruct (Hbody _ _ Hbody0 bb Hg); tauto.
    - (* FCall *)
      intros f args ret HA cont st s0 st' H0 Hc bb Hb. rewrite wc_unfold in H0. apply wc_call_inv in H0.
      destruct H0 as [args' [ret0 [Hargs [Eret Es]]]]. subst s0. cbn [tocc]. fold occ_arg.
      apply fvs_call in Hb. apply fva_app in Hb. destruct Hb as [Hb|Hb].
      + left. eapply (occ_args args HA); eauto.
      + right. apply fva_cons in Hb. destruct Hb as [Hb|Hb]; [exact Hb | apply fva_nil in Hb; contradiction].
    - (* FCtor *)
      intros x args ty HA ty0' st c st' H0 bb Hb. rewrite cmp_unfold in H0. apply cmp_ctor_inv in H0.
      destruct H0 as [args' [ty0 [Hargs [Ety Ec]]]]. subst c. cbn [tocc]. fold occ_arg.
      apply fvt_xtor in Hb. eapply (occ_args args HA); eauto.
    - (* FDtor *)
      intros t x targs args ty Ws HA cont st s0 st' H0 Hc bb Hb. rewrite wc_unfold in H0. apply wc_dtor_inv in H0.
      destruct H0 as [args' [st1 [sty0 [Hargs [Esty Hscrut]]]]]. cbn [tocc]. fold occ_arg. rewrite in_app_iff.
      destruct (Ws _ _ _ _ Hscrut I bb Hb) as [Hg|Hg].
      + left. left. exact Hg.
      + apply fvt_xtor in Hg. apply fva_app in Hg. destruct Hg as [Hg|Hg].
        * left. right. eapply (occ_args args HA); eauto.
        * right. apply fva_cons in Hg. destruct Hg as [Hg|Hg]; [exact Hg | apply fva_nil in Hg; contradiction].
    - (* FCase *)
      intros t targs cls ty Ws HB cont st s0 st' H0 Hc bb Hb. rewrite wc_unfold in H0.
      revert cont st s0 st' H0 Hc bb Hb. apply occ_guard.
      intros cont st s0 st' H0 Hc bb Hb. apply wc_case_inv in H0.
      destruct H0 as [cont1 [st0 [cls' [st1 [sty0 [Hsh [Hcls [Esty Hscrut]]]]]]]].
      assert (Hc1 : cont_cns cont1 /\ forall bb, In bb (fvt cont1) -> In bb (fvt cont)).
      { destruct (Nat.leb (List.length cls) 1 || cont_is_small cont);
          [destruct Hsh; subst; auto | eapply share_fvt; eauto]. }
      destruct Hc1 as [Hc1 Hsub]. cbn [tocc]. rewrite in_app_iff.
      destruct (Ws _ _ _ _ Hscrut I bb Hb) as [Hg|Hg].
      + left. left. exact Hg.
      + apply fvt_xcase in Hg.
        destruct (occ_clauses cont1 cls HB Hc1 _ _ _ Hcls bb Hg) as [Hg2|Hg2]; [left; right; exact Hg2 | right; apply Hsub; exact Hg2].
    - (* FNew *)
      intros cls ty HB ty0' st c st' H0 bb Hb. rewrite cmp_unfold in H0. apply cmp_new_inv in H0.
      destruct H0 as [cls' [ty0 [Hcls [Ety Ec]]]]. subst c. cbn [tocc].
      apply fvt_xcase in Hb. eapply (occ_coclauses cls HB); eauto.
    - (* FLabel *)
      intros l t ty W ty0' st c st' H0 bb Hb. rewrite cmp_unfold in H0. apply cmp_label_inv in H0.
      destruct H0 as [ty0 [s0 [Ety [Hs Ec]]]]. subst c ty. cbn [tocc].
      apply fvt_mu_iff in Hb. destruct Hb as [Hb Hne]. simpl in Hne.
      destruct (W _ _ _ _ Hs I bb Hb) as [Hg|Hg]; [exact Hg|].
      apply fvt_var in Hg. congruence.
    - (* FGoto *)
      intros l t ty W cont st s0 st' H0 Hc bb Hb. rewrite wc_unfold in H0. apply wc_goto_inv in H0.
      destruct H0 as [ty0 [Ety Hs]]. left. cbn [tocc]. rewrite in_app_iff.
      destruct (W _ _ _ _ Hs I bb Hb) as [Hg|Hg]; [right; exact Hg|].
      apply fvt_var in Hg. subst bb. left. rewrite Ety. simpl. left. reflexivity.
    - (* FExit *)
      intros t ty C cont st s0 st' H0 Hc bb Hb. rewrite wc_unfold in H0. apply wc_exit_inv in H0.
      destruct H0 as [a [ty0 [Ha [Ety Es]]]]. subst s0. left. cbn [tocc].
      apply fvs_exit in Hb. eapply C; eauto.
    - (* FParen *)
      intros t W C. split.
      + intros cont st s0 st' H0 Hc bb Hb. rewrite wc_unfold in H0. eapply W; eauto.
      + intros ty0' st c st' H0 bb Hb. rewrite cmp_unfold in H0. eapply C; eauto.
  Qed.

  Definition occ_wc (t : fterm) := proj1 (occ_both t).
  Definition occ_cmp (t : fterm) := proj2 (occ_both t).
End FV.
