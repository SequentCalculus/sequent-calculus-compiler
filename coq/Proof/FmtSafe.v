(* C16: every printed document is a safe document.
     safe_doc (d_prog c p) = true      for every configuration c and every parser-shaped p
   i.e. between two atoms that would lex differently when juxtaposed (two words/numbers, or
   operator characters that form a longer terminal) the printer always puts a separator that
   renders to at least one blank (space, line, hardline) - never nothing and never `line_`.
   Continuation style: [robust acc] = acc is safe after anything; a sub-document is safe in front of
   a robust continuation when it starts in an [okstart] state. *)
From Coq Require Import List ZArith NArith String Ascii Bool Lia.
From SCC Require Import Base.Sexp Lang.SynUtil Lang.FunSyn Model.Printer Model.Parser Model.FmtClass
  Proof.FmtDefs Proof.FmtWf Proof.FmtGlue.
Import ListNotations.
Local Open Scope list_scope.

Definition blank (cur : option sepk) : bool := match cur with Some KSome => true | _ => false end.
Definition sep_check (last : option atom) (cur : option sepk) (b : atom) : bool :=
  match last with
  | None => true
  | Some a => negb (cns_clash a b) && (negb (sticky a b) || blank cur)
  end.
Lemma safe_step last cur b l : safe_from last cur (IAtom b :: l) = sep_check last cur b && safe_from (Some b) None l.
Proof. reflexivity. Qed.
Lemma safe_sep last cur k l : safe_from last cur (ISep k :: l) = safe_from last (sep_join cur k) l.
Proof. reflexivity. Qed.

Definition is_colon (a : atom) : bool := match a with ASym SColon => true | _ => false end.
Definition unsticky (a : atom) : bool := negb (wordy a) && negb (op_end a).
(* states in which any atom may follow *)
Definition okstart (last : option atom) (cur : option sepk) : bool :=
  match last with None => true | Some a => negb (is_colon a) && (unsticky a || blank cur) end.
(* states in which a type may follow (a colon is fine: type names are no `cns..` words) *)
Definition okstart_ty (last : option atom) (cur : option sepk) : bool :=
  match last with None => true | Some a => unsticky a || blank cur end.

Lemma check_ok last cur b : okstart last cur = true -> sep_check last cur b = true.
Proof.
  destruct last as [a|]; [|reflexivity]. unfold okstart, sep_check. intros H.
  apply andb_prop in H. destruct H as [Hc Hs].
  assert (cns_clash a b = false) as -> by (destruct a as [| |[]|]; try reflexivity; discriminate).
  cbn [negb andb]. apply orb_prop in Hs. destruct Hs as [Hs|Hs]; [|rewrite Hs; apply orb_true_r].
  unfold unsticky in Hs. apply andb_prop in Hs. destruct Hs as [H1 H2].
  apply negb_true_iff in H1, H2. unfold sticky. now rewrite H1, H2.
Qed.
Lemma check_ty last cur s : okstart_ty last cur = true -> prefix_cns s = false -> sep_check last cur (AWord s) = true.
Proof.
  destruct last as [a|]; [|reflexivity]. unfold okstart_ty, sep_check. intros Hs Hp.
  assert (cns_clash a (AWord s) = false) as -> by (destruct a as [| |[]|]; try reflexivity; exact Hp).
  cbn [negb andb]. apply orb_prop in Hs. destruct Hs as [Hs|Hs]; [|rewrite Hs; apply orb_true_r].
  unfold unsticky in Hs. apply andb_prop in Hs. destruct Hs as [H1 H2].
  apply negb_true_iff in H1, H2. unfold sticky. now rewrite H1, H2.
Qed.
Lemma okstart_sep last cur k : okstart last cur = true -> okstart last (sep_join cur k) = true.
Proof.
  destruct last as [a|]; [|reflexivity]. unfold okstart. intros H. apply andb_prop in H. destruct H as [-> H].
  cbn [andb]. apply orb_prop in H. destruct H as [->|H]; [reflexivity|].
  destruct cur as [[]|]; try discriminate. destruct k; apply orb_true_r.
Qed.
Lemma okstart_ty_sep last cur k : okstart_ty last cur = true -> okstart_ty last (sep_join cur k) = true.
Proof.
  destruct last as [a|]; [|reflexivity]. unfold okstart_ty. intros H.
  apply orb_prop in H. destruct H as [->|H]; [reflexivity|].
  destruct cur as [[]|]; try discriminate. destruct k; apply orb_true_r.
Qed.
Lemma okstart_weaken last cur : okstart last cur = true -> okstart_ty last cur = true.
Proof. destruct last; [|reflexivity]. unfold okstart, okstart_ty. intros H. apply andb_prop in H. tauto. Qed.

(* ---------- continuations that are safe after anything ---------- *)
Definition robust (l : list item) : Prop := forall last cur, safe_from last cur l = true.
Lemma robust_nil : robust [].
Proof. intros ? ?. reflexivity. Qed.
Definition inert (y : sym) : bool := negb (op_start (ASym y)).
Lemma robust_sym y l : inert y = true -> safe_from (Some (ASym y)) None l = true -> robust (IAtom (ASym y) :: l).
Proof.
  intros Hy Hl last cur. rewrite safe_step, Hl, andb_true_r. destruct last as [a|]; [|reflexivity].
  unfold sep_check. assert (cns_clash a (ASym y) = false) as -> by (destruct a as [| |[]|]; reflexivity).
  unfold inert in Hy. apply negb_true_iff in Hy. unfold sticky. rewrite Hy. cbn [wordy]. now rewrite !andb_false_r.
Qed.
Lemma robust_sep k l : robust l -> robust (ISep k :: l).
Proof. intros H last cur. rewrite safe_sep. apply H. Qed.
Definition harmless (b : atom) : bool := match b with AWord s => negb (prefix_cns s) | _ => true end.
Lemma robust_some_atom b l : harmless b = true -> safe_from (Some b) None l = true -> robust (ISep KSome :: IAtom b :: l).
Proof.
  intros Hb Hl last cur. rewrite safe_sep, safe_step, Hl, andb_true_r.
  assert (sep_join cur KSome = Some KSome) as -> by (destruct cur as [[]|]; reflexivity).
  destruct last as [a|]; [|reflexivity]. unfold sep_check.
  assert (cns_clash a b = false) as ->.
  { destruct a as [| |[]|]; try reflexivity. destruct b; try reflexivity. cbn in *. now apply negb_true_iff. }
  cbn. apply orb_true_r.
Qed.

(* statement for a piece of document given as a function on continuations *)
Definition Sf (f : list item -> list item) : Prop :=
  forall acc, robust acc -> forall last cur, okstart last cur = true -> safe_from last cur (f acc) = true.
Definition Sd (d : doc) : Prop := Sf (flat_acc d).

Fixpoint icommas (fs : list (list item -> list item)) (k : list item) : list item :=
  match fs with
  | [] => k
  | [f] => f k
  | f :: r => f (IAtom (ASym SComma) :: ISep KSome :: icommas r k)
  end.
Lemma flat_intersperse_from sep acc0 l k :
  flat_acc (intersperse_from acc0 l sep) k = flat_acc acc0 (fold_right (fun d r => flat_acc sep (flat_acc d r)) k l).
Proof.
  revert acc0. induction l as [|d l IH]; intros acc0; cbn [intersperse_from fold_right]; [reflexivity|].
  rewrite IH. reflexivity.
Qed.
Lemma flat_intersperse sep (l : list doc) k :
  (forall X, flat_acc sep X = IAtom (ASym SComma) :: ISep KSome :: X) ->
  flat_acc (intersperse l sep) k = icommas (map flat_acc l) k.
Proof.
  intros Hsep. unfold intersperse. destruct l as [|d l]; [reflexivity|].
  rewrite flat_intersperse_from. cbn [flat_acc map].
  revert d. induction l as [|e l IH]; intros d; [reflexivity|].
  cbn [map fold_right]. rewrite Hsep. rewrite IH. reflexivity.
Qed.
Lemma map_flat_group (l : list doc) : map flat_acc (map DGroup l) = map flat_acc l.
Proof. induction l; cbn [map]; [reflexivity|]. now rewrite IHl. Qed.
Lemma flat_comma_sep c (l : list doc) k : flat_acc (comma_sep c l) k = icommas (map flat_acc l) k.
Proof.
  unfold comma_sep. rewrite flat_intersperse by (intros; destruct (plinebreaks c); reflexivity).
  now rewrite map_flat_group.
Qed.
Lemma S_icommas (fs : list (list item -> list item)) :
  (forall f, In f fs -> Sf f) ->
  forall acc, robust acc -> forall last cur, okstart last cur = true -> safe_from last cur (icommas fs acc) = true.
Proof.
  induction fs as [|f fs IH]; intros H acc Hacc last cur Hs; [apply Hacc|].
  assert (IH' := IH (fun g Hg => H g (or_intror Hg))).
  destruct fs as [|g gs].
  - apply (H f (or_introl eq_refl)); assumption.
  - change (icommas (f :: g :: gs) acc) with (f (IAtom (ASym SComma) :: ISep KSome :: icommas (g :: gs) acc)).
    apply (H f (or_introl eq_refl)); [|assumption].
    apply robust_sym; [reflexivity|]. rewrite safe_sep. apply IH'; [assumption|reflexivity].
Qed.
(* the same after a colon as well: for pieces that start with a type name *)
Definition Sf_ty (f : list item -> list item) : Prop :=
  forall acc, robust acc -> forall last cur, okstart_ty last cur = true -> safe_from last cur (f acc) = true.

(* sep_ is nothing or line_ *)
Lemma flat_sep_ c k : flat_acc (sep_ c) k = if plinebreaks c then ISep KMaybe :: k else k.
Proof. unfold sep_. destruct (plinebreaks c); reflexivity. Qed.
Lemma robust_sep_ c k : robust k -> robust (flat_acc (sep_ c) k).
Proof. intros H. rewrite flat_sep_. destruct (plinebreaks c); [now apply robust_sep | exact H]. Qed.
Lemma safe_sep_ c last cur k :
  okstart last cur = true -> (forall cur', okstart last cur' = true -> safe_from last cur' k = true) ->
  safe_from last cur (flat_acc (sep_ c) k) = true.
Proof.
  intros Hs H. rewrite flat_sep_. destruct (plinebreaks c); [|now apply H].
  rewrite safe_sep. apply H. now apply okstart_sep.
Qed.

(* [ sep_ items sep_ ] between brackets l r: safe after anything *)
Lemma S_bracket_list c (l r : sym) (fs : list (list item -> list item)) acc :
  inert l = true -> inert r = true -> unsticky (ASym l) = true -> is_colon (ASym l) = false ->
  (forall f, In f fs -> Sf f) -> robust acc ->
  robust (IAtom (ASym l) :: flat_acc (sep_ c) (icommas fs (flat_acc (sep_ c) (IAtom (ASym r) :: acc)))).
Proof.
  intros Hl Hr Hu Hc HS Hacc.
  apply robust_sym; [assumption|]. apply safe_sep_.
  - unfold okstart. now rewrite Hc, Hu.
  - intros cur' Hcur'. apply S_icommas; [assumption | | assumption].
    apply robust_sep_. apply robust_sym; [assumption|]. apply Hacc.
Qed.

(* evaluates one step of the scan on concrete atoms and separators *)
Ltac conc := cbn [safe_from sep_join cns_clash sticky wordy op_end op_start negb andb orb prefix_cns blank].

Section SafeTypes.
Variable c : pcfg.

Lemma upper_no_cns_prefix n : upper_ok n = true -> prefix_cns n = false.
Proof.
  unfold upper_ok. destruct n as [|ch r]; [discriminate|]. intros H. apply andb_prop in H. destruct H as [H1 _].
  unfold prefix_cns. destruct ch as [[] [] [] [] [] [] [] []]; try reflexivity. cbv in H1. discriminate.
Qed.
Lemma Sty_Sf f : Sf_ty f -> Sf f.
Proof. intros H acc Hacc last cur Hs. apply H; [assumption | now apply okstart_weaken]. Qed.
Lemma robust_opt_list l r ds k :
  inert l = true -> inert r = true -> unsticky (ASym l) = true -> is_colon (ASym l) = false ->
  (forall d, In d ds -> Sd d) -> robust k -> robust (flat_acc (opt_list_doc c l r ds) k).
Proof.
  intros Hl Hr Hu Hc H Hk. destruct ds as [|d ds']; [exact Hk|]. remember (d :: ds') as ds eqn:E.
  assert (flat_acc (opt_list_doc c l r ds) k = IAtom (ASym l) :: flat_acc (sep_ c)
            (icommas (map flat_acc ds) (flat_acc (sep_ c) (IAtom (ASym r) :: k)))) as ->.
  { subst ds. unfold opt_list_doc, enclose, dsym. cbn [flat_acc]. now rewrite flat_comma_sep. }
  apply S_bracket_list; try assumption.
  intros f Hf. apply in_map_iff in Hf. destruct Hf as (x & <- & Hx). now apply H.
Qed.
Lemma robust_tyargs_of targs k :
  (forall x, In x targs -> Sf_ty (flat_acc (d_ty c x))) -> robust k -> robust (flat_acc (d_tyargs c targs) k).
Proof.
  intros H. rewrite d_tyargs_list. apply robust_opt_list; try reflexivity.
  intros d Hd. apply in_map_iff in Hd. destruct Hd as (x & <- & Hx). now apply Sty_Sf, H.
Qed.
Lemma S_ty t : wf_ty t = true -> Sf_ty (flat_acc (d_ty c t)).
Proof.
  apply (wf_ty_ind (fun t => Sf_ty (flat_acc (d_ty c t)))); clear t.
  - intros acc Hacc last cur Hs. change (flat_acc (d_ty c FI64) acc) with (IAtom (AWord "i64") :: acc).
    rewrite safe_step, check_ty by (auto; reflexivity). apply Hacc.
  - intros n targs Hn Hargs acc Hacc last cur Hs. rewrite d_ty_decl. unfold word. cbn [flat_acc].
    rewrite safe_step, check_ty by (auto using upper_no_cns_prefix). cbn [andb].
    apply robust_tyargs_of; [|assumption]. intros x Hx. now apply Hargs.
Qed.
Lemma robust_tyargs targs k : forallb wf_ty targs = true -> robust k -> robust (flat_acc (d_tyargs c targs) k).
Proof. intros Hwf. rewrite forallb_forall in Hwf. apply robust_tyargs_of. intros x Hx. apply S_ty. now apply Hwf. Qed.

Lemma S_word s : Sf (cons (IAtom (AWord s))).
Proof. intros acc Hacc last cur Hs. rewrite safe_step, check_ok by assumption. apply Hacc. Qed.
Lemma robust_namectx names k : robust k -> robust (flat_acc (d_namectx c names) k).
Proof.
  rewrite d_namectx_list. apply robust_opt_list; try reflexivity.
  intros d Hd. apply in_map_iff in Hd. destruct Hd as (x & <- & Hx). apply S_word.
Qed.
Lemma robust_typectx names k : robust k -> robust (flat_acc (d_typectx c names) k).
Proof.
  rewrite d_typectx_list. apply robust_opt_list; try reflexivity.
  intros d Hd. apply in_map_iff in Hd. destruct Hd as (x & <- & Hx). apply S_word.
Qed.
Lemma S_binding b : wf_binding b = true -> Sf (flat_acc (d_binding c b)).
Proof.
  unfold wf_binding. intros H. apply andb_prop in H. destruct H as [_ Hty]. destruct b as [v chi ty].
  cbn [fbty] in Hty. intros acc Hacc last cur Hs.
  unfold d_binding, word, dsym. cbn [fbvar fbchi fbty flat_acc].
  rewrite safe_step, check_ok by assumption. cbn [andb].
  destruct chi; unfold d_chi, word; cbn [flat_acc]; conc.
  - apply S_ty; auto.
  - apply S_ty; auto.
Qed.
Lemma flat_args (l : list doc) k :
  flat_acc (d_args c l) k =
  match l with [] => k | _ => flat_acc (sep_ c) (icommas (map flat_acc l) (flat_acc (sep_ c) k)) end.
Proof. destruct l as [|d l]; [reflexivity|]. unfold d_args. cbn [flat_acc]. now rewrite flat_comma_sep. Qed.
(* ( d1 , .. , dn ) *)
Lemma robust_parens_list (ds : list doc) k : (forall d, In d ds -> Sd d) -> robust k ->
  robust (IAtom (ASym SLPar) :: flat_acc (d_args c ds) (IAtom (ASym SRPar) :: k)).
Proof.
  intros HS Hk. rewrite flat_args. destruct ds as [|d l].
  - apply robust_sym; [reflexivity|]. conc. apply Hk.
  - remember (d :: l) as ds. apply S_bracket_list; try reflexivity; [|assumption].
    intros f Hf. apply in_map_iff in Hf. destruct Hf as (x & <- & Hx). now apply HS.
Qed.
Lemma robust_parens_ctx g k : wf_ctx g = true -> robust k ->
  robust (IAtom (ASym SLPar) :: flat_acc (d_ctx c g) (IAtom (ASym SRPar) :: k)).
Proof.
  intros Hwf Hk. unfold wf_ctx in Hwf. rewrite forallb_forall in Hwf. rewrite d_ctx_args.
  apply robust_parens_list; [|exact Hk].
  intros d Hd. apply in_map_iff in Hd. destruct Hd as (b & <- & Hb). apply S_binding. now apply Hwf.
Qed.
End SafeTypes.

Section SafeTerms.
Variable c : pcfg.
Definition St (t : fterm) : Prop := Sd (d_term c t).

Lemma robust_parens_args (args : list fterm) k : (forall a, In a args -> St a) -> robust k ->
  robust (IAtom (ASym SLPar) :: flat_acc (d_args c (map (d_term c) args)) (IAtom (ASym SRPar) :: k)).
Proof.
  intros HS. apply robust_parens_list. intros d Hd. apply in_map_iff in Hd. destruct Hd as (a & <- & Ha). now apply HS.
Qed.
Lemma robust_optargs (args : list fterm) k : (forall a, In a args -> St a) -> robust k ->
  robust (flat_acc (d_optargs c (map (d_term c) args)) k).
Proof.
  intros HS Hk. destruct args as [|a l]; [exact Hk|]. remember (a :: l) as args.
  assert (flat_acc (d_optargs c (map (d_term c) args)) k
          = IAtom (ASym SLPar) :: flat_acc (d_args c (map (d_term c) args)) (IAtom (ASym SRPar) :: k)) as ->
    by (subst args; reflexivity).
  now apply robust_parens_args.
Qed.

Lemma St_var v ty chi : St (FVar v ty chi).
Proof. intros acc Hacc last cur Hs. cbn [d_term]. unfold word. cbn [flat_acc]. now apply S_word. Qed.
Lemma St_lit z : St (FLit z).
Proof.
  intros acc Hacc last cur Hs. cbn [d_term]. unfold d_lit, dsym. destruct (z <? 0)%Z; cbn [flat_acc].
  - rewrite safe_step, check_ok by assumption. conc. apply Hacc.
  - rewrite safe_step, check_ok by assumption. apply Hacc.
Qed.
Lemma flat_binop o k : flat_acc (d_binop o) k = IAtom (ASym (sym_of_binop o)) :: k.
Proof. destruct o; reflexivity. Qed.
Lemma St_op a o b : St a -> St b -> St (FOp a o b).
Proof.
  intros Ha Hb acc Hacc last cur Hs. cbn [d_term flat_acc]. rewrite flat_binop.
  apply Ha; [|assumption]. apply robust_some_atom; [reflexivity|]. rewrite safe_sep.
  apply Hb; [assumption|]. destruct o; reflexivity.
Qed.
(* { line body line } *)
Lemma robust_block t k : St t -> robust k -> robust (flat_acc (block c (d_term c t)) k).
Proof.
  intros Ht Hk. unfold block, braces, enclose, dsym. cbn [flat_acc].
  apply robust_sym; [reflexivity|]. rewrite safe_sep. apply Ht; [|reflexivity].
  apply robust_sep. apply robust_sym; [reflexivity|]. apply Hk.
Qed.
(* ( line_ body line_ ) *)
Lemma robust_pblock t k : St t -> robust k -> robust (flat_acc (pblock c (d_term c t)) k).
Proof.
  intros Ht Hk. unfold pblock, parens, enclose, dsym. cbn [flat_acc].
  apply robust_sym; [reflexivity|]. rewrite safe_sep. apply Ht; [|reflexivity].
  apply robust_sep. apply robust_sym; [reflexivity|]. apply Hk.
Qed.
Lemma St_if s a b th el ty :
  St a -> match b with Some b' => St b' | None => True end -> St th -> St el -> St (FIfC s a b th el ty).
Proof.
  intros Ha Hb Hth Hel acc Hacc last cur Hs. cbn [d_term]. unfold word, dsym.
  assert (Rbr : robust (flat_acc (block c (d_term c th))
                  (ISep KSome :: IAtom (AWord "else") :: ISep KSome :: flat_acc (block c (d_term c el)) acc))).
  { apply robust_block; [assumption|].
    apply robust_some_atom; [reflexivity|]. rewrite safe_sep.
    apply robust_block; assumption. }
  destruct b as [b|].
  - (* general form: `if` a, a blank, [the comment, if a ends with 0], the operator, a blank, [a minus sign, if b starts
       with 0], b.  The four cases differ only in the optional items, which the scan steps over one by one (the two
       [repeat]s: before and after the blank behind the operator). *)
    destruct (ends_zero a), (starts_zero b); cbn [flat_acc]; rewrite safe_step, check_ok by assumption; conc;
      (apply Ha; [|reflexivity]); apply robust_some_atom; try reflexivity; rewrite safe_sep;
      repeat (rewrite safe_step; conc); try rewrite safe_sep;
      repeat (rewrite safe_step; conc);
      (apply Hb; [now apply robust_sep | reflexivity]).
  - destruct (ends_zero a); cbn [flat_acc]; rewrite safe_step, check_ok by assumption; conc.
    + (* zero on the left *) apply Ha; [now apply robust_sep | reflexivity].
    + apply Ha; [|reflexivity]. apply robust_some_atom; [reflexivity|]. rewrite safe_sep. conc. apply Rbr.
Qed.
Lemma St_print nl a next ty : St a -> St next -> St (FPrint nl a next ty).
Proof.
  intros Ha Hn acc Hacc last cur Hs. cbn [d_term]. unfold word, dsym. cbn [flat_acc].
  rewrite safe_step, check_ok by assumption. cbn [andb].
  apply robust_pblock; [assumption|].
  apply robust_sym; [reflexivity|]. rewrite safe_sep. apply Hn; [assumption|reflexivity].
Qed.
Lemma St_let v vty bound body ty : wf_ty vty = true -> St bound -> St body -> St (FLet v vty bound body ty).
Proof.
  intros Hty Hb Ht acc Hacc last cur Hs. cbn [d_term]. unfold word, dsym. cbn [flat_acc].
  rewrite safe_step, check_ok by assumption. conc.
  apply S_ty; [assumption | | reflexivity].
  apply robust_some_atom; [reflexivity|]. rewrite safe_sep.
  apply Hb; [|reflexivity]. apply robust_sym; [reflexivity|]. rewrite safe_sep.
  apply Ht; [assumption|reflexivity].
Qed.
Lemma St_call f args r : (forall a, In a args -> St a) -> St (FCall f args r).
Proof.
  intros HS acc Hacc last cur Hs.
  rewrite d_term_call.
  unfold word, parens, enclose, dsym. cbn [flat_acc].
  rewrite safe_step, check_ok by assumption. cbn [andb]. now apply robust_parens_args.
Qed.
Lemma St_ctor x args r : (forall a, In a args -> St a) -> St (FCtor x args r).
Proof.
  intros HS acc Hacc last cur Hs.
  rewrite d_term_ctor.
  unfold word. cbn [flat_acc]. rewrite safe_step, check_ok by assumption. cbn [andb]. now apply robust_optargs.
Qed.
Lemma St_dtor s x targs args r :
  St s -> forallb wf_ty targs = true -> (forall a, In a args -> St a) -> St (FDtor s x targs args r).
Proof.
  intros Hs' Hty HS acc Hacc last cur Hs.
  rewrite d_term_dtor. cbv zeta.
  assert (R : robust (IAtom (ASym SDot) :: IAtom (AWord x) :: flat_acc (d_tyargs c targs)
                        (flat_acc (d_optargs c (map (d_term c) args)) acc))).
  { apply robust_sym; [reflexivity|]. conc. apply robust_tyargs; [assumption|]. now apply robust_optargs. }
  destruct (short_scrutinee c s); unfold word, dsym; cbn [flat_acc]; apply Hs'; try assumption.
  now apply robust_sep.
Qed.
Lemma flat_decl_body (sigs : list doc) k :
  flat_acc (d_decl_body c sigs) k =
  match sigs with
  | [] => IAtom (ASym SLBrace) :: ISep KSome :: IAtom (ASym SRBrace) :: k
  | _ => IAtom (ASym SLBrace) :: ISep KSome :: icommas (map flat_acc sigs) (ISep KSome :: IAtom (ASym SRBrace) :: k)
  end.
Proof.
  unfold d_decl_body, braces, enclose, dsym. destruct sigs as [|a l]; [reflexivity|].
  cbn [flat_acc]. now rewrite flat_intersperse by reflexivity.
Qed.
Lemma robust_decl_body (sigs : list doc) k : (forall d, In d sigs -> Sd d) -> robust k ->
  robust (flat_acc (d_decl_body c sigs) k).
Proof.
  intros HS Hk. rewrite flat_decl_body. destruct sigs as [|a l].
  - apply robust_sym; [reflexivity|]. conc. apply Hk.
  - remember (a :: l) as sigs. apply robust_sym; [reflexivity|]. rewrite safe_sep.
    apply S_icommas; [| | reflexivity].
    + intros f Hf. apply in_map_iff in Hf. destruct Hf as (x & <- & Hx). now apply HS.
    + apply robust_sep. apply robust_sym; [reflexivity|]. apply Hk.
Qed.
Definition Scl (cl : fclause) : Prop := Sd (d_clause c cl).
(* clause lists and declaration bodies differ in line breaks and groups only *)
Lemma flat_clauses (l : list doc) k : flat_acc (d_clauses c l) k = flat_acc (d_decl_body c l) k.
Proof.
  rewrite flat_decl_body. unfold d_clauses, braces, enclose, dsym. destruct l as [|a [|b l]]; try reflexivity.
  cbn [flat_acc]. rewrite flat_intersperse by reflexivity. now rewrite map_flat_group.
Qed.
Lemma robust_clauses cls k : (forall cl, In cl cls -> Scl cl) -> robust k ->
  robust (flat_acc (d_clauses c (map (d_clause c) cls)) k).
Proof.
  intros HS Hk. rewrite flat_clauses. apply robust_decl_body; [|exact Hk].
  intros d Hd. apply in_map_iff in Hd. destruct Hd as (cl & <- & Hcl). now apply HS.
Qed.
Lemma St_case s targs cls r :
  St s -> forallb wf_ty targs = true -> (forall cl, In cl cls -> Scl cl) -> St (FCase s targs cls r).
Proof.
  intros Hs' Hty HS acc Hacc last cur Hs.
  rewrite d_term_case.
  assert (R : robust (IAtom (ASym SDot) :: IAtom (AWord "case") :: flat_acc (d_tyargs c targs)
                        (ISep KSome :: flat_acc (d_clauses c (map (d_clause c) cls)) acc))).
  { apply robust_sym; [reflexivity|]. conc. apply robust_tyargs; [assumption|].
    apply robust_sep. now apply robust_clauses. }
  destruct (is_dtor s); unfold word, dsym; cbn [flat_acc]; apply Hs'; try assumption.
  now apply robust_sep.
Qed.
Lemma St_new cls r : (forall cl, In cl cls -> Scl cl) -> St (FNew cls r).
Proof.
  intros HS acc Hacc last cur Hs.
  rewrite d_term_new.
  unfold word. cbn [flat_acc]. rewrite safe_step, check_ok by assumption. cbn [andb]. rewrite safe_sep.
  now apply robust_clauses.
Qed.
Lemma S_clause p x names g body : St body -> Scl (FClause p x names g body).
Proof.
  intros Hb acc Hacc last cur Hs. cbn [d_clause]. unfold word, dsym. cbn [flat_acc].
  rewrite safe_step, check_ok by assumption. cbn [andb].
  apply robust_namectx. apply robust_some_atom; [reflexivity|]. rewrite safe_sep.
  apply Hb; [assumption|reflexivity].
Qed.
Lemma St_label l t ty : St t -> St (FLabel l t ty).
Proof.
  intros Ht acc Hacc last cur Hs. cbn [d_term]. unfold word. cbn [flat_acc].
  rewrite safe_step, check_ok by assumption. conc. now apply robust_block.
Qed.
Lemma St_goto l t ty : St t -> St (FGoto l t ty).
Proof.
  intros Ht acc Hacc last cur Hs. cbn [d_term]. unfold word. cbn [flat_acc].
  rewrite safe_step, check_ok by assumption. conc. now apply robust_pblock.
Qed.
Lemma St_exit a ty : St a -> St (FExit a ty).
Proof.
  intros Ha acc Hacc last cur Hs. cbn [d_term]. unfold word. cbn [flat_acc].
  rewrite safe_step, check_ok by assumption. conc. apply Ha; [assumption|reflexivity].
Qed.
Lemma St_paren t : St t -> St (FParen t).
Proof. intros Ht acc Hacc last cur Hs. cbn [d_term]. now apply robust_pblock. Qed.

Lemma S_clauses_all pol cls :
  (forall p x ns g body, In (FClause p x ns g body) cls -> wf_clause pol (FClause p x ns g body) = true /\ St body) ->
  forall cl, In cl cls -> Scl cl.
Proof. intros H [p x ns g body] Hin. destruct (H _ _ _ _ _ Hin). now apply S_clause. Qed.
Lemma St_all t : wf t = true -> St t.
Proof.
  apply wf_ind; clear t; intros.
  - apply St_var.
  - apply St_lit.
  - now apply St_op.
  - now apply St_if.
  - now apply St_print.
  - now apply St_let.
  - now apply St_call.
  - now apply St_ctor.
  - now apply St_dtor.
  - apply St_case; auto. now apply (S_clauses_all FData).
  - apply St_new. now apply (S_clauses_all FCodata).
  - now apply St_label.
  - now apply St_goto.
  - now apply St_exit.
  - now apply St_paren.
Qed.
End SafeTerms.

Section SafeDecls.
Variable c : pcfg.
Lemma robust_sigargs g k : wf_ctx g = true -> robust k -> robust (flat_acc (d_sigargs c g) k).
Proof.
  intros Hwf Hk. destruct g as [|b l]; [exact Hk|]. remember (b :: l) as g.
  assert (flat_acc (d_sigargs c g) k = IAtom (ASym SLPar) :: flat_acc (d_ctx c g) (IAtom (ASym SRPar) :: k)) as ->
    by (subst g; reflexivity).
  now apply robust_parens_ctx.
Qed.
Lemma S_ctorsig s : wf_ctx (fctargs s) = true -> Sf (flat_acc (d_ctorsig c s)).
Proof.
  intros Hwf acc Hacc last cur Hs. unfold d_ctorsig, word. cbn [flat_acc].
  rewrite safe_step, check_ok by assumption. cbn [andb]. now apply robust_sigargs.
Qed.
Lemma S_dtorsig s : wf_ctx (fdtargs s) = true -> wf_ty (fdtcont s) = true -> Sf (flat_acc (d_dtorsig c s)).
Proof.
  intros Hwf Hty acc Hacc last cur Hs. unfold d_dtorsig, word, dsym. cbn [flat_acc].
  rewrite safe_step, check_ok by assumption. cbn [andb]. apply robust_sigargs; [assumption|].
  apply robust_sym; [reflexivity|]. rewrite safe_sep. apply S_ty; [assumption | assumption | reflexivity].
Qed.
Lemma S_decl d : wf_decl d = true -> Sf_ty (flat_acc (d_decl c d)).
Proof.
  intros Hwf acc Hacc last cur Hs. destruct d as [d|d|d]; cbn [wf_decl d_decl] in *.
  - destruct d as [x ps cs]. cbn [fdaname fdaparams fdactors] in *.
    rewrite !andb_true_iff in Hwf. destruct Hwf as (_ & Hcs). rewrite forallb_forall in Hcs.
    unfold d_data, word. cbn [fdaname fdaparams fdactors flat_acc].
    rewrite safe_step, check_ty by (auto; reflexivity). conc.
    apply robust_typectx. apply robust_sep. apply robust_decl_body; [|assumption].
    intros dd Hd. apply in_map_iff in Hd. destruct Hd as (s & <- & Hs'). apply S_ctorsig.
    specialize (Hcs s Hs'). apply andb_prop in Hcs. tauto.
  - destruct d as [x ps ds]. cbn [fcoaname fcoparams fcodtors] in *.
    rewrite !andb_true_iff in Hwf. destruct Hwf as (_ & Hds). rewrite forallb_forall in Hds.
    unfold d_codata, word. cbn [fcoaname fcoparams fcodtors flat_acc].
    rewrite safe_step, check_ty by (auto; reflexivity). conc.
    apply robust_typectx. apply robust_sep. apply robust_decl_body; [|assumption].
    intros dd Hd. apply in_map_iff in Hd. destruct Hd as (s & <- & Hs'). specialize (Hds s Hs').
    rewrite !andb_true_iff in Hds. apply S_dtorsig; tauto.
  - destruct d as [f g ret body]. cbn [fdname fdctx fdret fdbody] in *.
    rewrite !andb_true_iff in Hwf. destruct Hwf as (((_ & Hg) & Hret) & Hbody).
    unfold d_def, word, dsym, parens, braces, enclose, dsym. cbn [fdname fdctx fdret fdbody flat_acc].
    rewrite safe_step, check_ty by (auto; reflexivity). cbn [andb]. rewrite safe_sep, safe_step.
    cbn [sep_check cns_clash sticky wordy op_end op_start negb andb orb blank sep_join].
    apply robust_parens_ctx; [assumption|].
    apply robust_sym; [reflexivity|]. rewrite safe_sep.
    apply S_ty; [assumption | | reflexivity].
    apply robust_some_atom; [reflexivity|]. rewrite safe_sep.
    apply (St_all c body Hbody); [|reflexivity].
    apply robust_sep. apply robust_sym; [reflexivity|]. apply Hacc.
Qed.

Lemma flat_intersperse_blank sep (l : list doc) k n :
  (forall X, flat_acc sep X = repeat (ISep KSome) (S n) ++ X) ->
  flat_acc (intersperse l sep) k =
  match l with [] => k | d :: r => flat_acc d (fold_right (fun d r => repeat (ISep KSome) (S n) ++ flat_acc d r) k r) end.
Proof.
  intros Hsep. unfold intersperse. destruct l as [|d l]; [reflexivity|].
  rewrite flat_intersperse_from. cbn [flat_acc]. f_equal.
  induction l as [|e l IH]; [reflexivity|]. cbn [fold_right]. rewrite Hsep. now rewrite IH.
Qed.
Lemma robust_blanks n k : robust k -> robust (repeat (ISep KSome) n ++ k).
Proof. intros H. induction n; cbn; [exact H|]. now apply robust_sep. Qed.

Lemma safe_blanks n last k :
  safe_from last (Some KSome) (repeat (ISep KSome) n ++ k) = safe_from last (Some KSome) k.
Proof. induction n; cbn [repeat app]; [reflexivity|]. rewrite safe_sep. exact IHn. Qed.
Lemma robust_decls n ds : (forall x, In x ds -> wf_decl x = true) ->
  robust (fold_right (fun d r => repeat (ISep KSome) (S n) ++ flat_acc d r) [] (map (d_decl c) ds)).
Proof.
  induction ds as [|e ds IH]; intros Hds; [apply robust_nil|]. cbn [map fold_right].
  intros last cur. cbn [repeat app]. rewrite safe_sep.
  assert (sep_join cur KSome = Some KSome) as -> by (destruct cur as [[]|]; reflexivity).
  rewrite safe_blanks. apply S_decl.
  - apply Hds. now left.
  - apply IH. intros; apply Hds; now right.
  - destruct last; [apply orb_true_r | reflexivity].
Qed.

Theorem safe_print p : wf_prog p = true -> safe_doc (d_prog c p) = true.
Proof.
  intros Hwf. unfold safe_doc, safe_items, flat. destruct p as [ds]. unfold wf_prog, d_prog in *. cbn [fpdecls] in *.
  rewrite forallb_forall in Hwf.
  rewrite (flat_intersperse_blank _ _ _ (if pomit_sep c then 0 else 1)) by (intros; destruct (pomit_sep c); reflexivity).
  destruct ds as [|d ds]; [reflexivity|]. cbn [map].
  apply S_decl; [apply Hwf; now left | | reflexivity].
  apply robust_decls. intros; apply Hwf; now right.
Qed.
End SafeDecls.
