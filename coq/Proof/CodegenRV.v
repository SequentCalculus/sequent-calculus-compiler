(* C12: the RISC-V back end satisfies [capacity_ok] with
   P = positions_rv = 28 registers (no spilling), hence rv_compile returns Ok on every linear program
   within capacity that contains no print: "Out of registers" and "not implemented in RISC-V
   backend" are the only reachable panics. *)
From Coq Require Import List ZArith NArith String Bool Lia.
From SCC Require Import Base.Sexp Lang.AxSyn Model.ParMoves Model.Backend Model.RV Model.LinCheck Model.Capacity.
From SCC Require Import Proof.SubstGraph Proof.SubstBackends Proof.CodegenTotal.
Import ListNotations.
Open Scope list_scope.

Lemma positions_rv_val : positions_rv = 28%N.
Proof. reflexivity. Qed.
Lemma K_rv_val : K_rv = 13%nat.
Proof. reflexivity. Qed.

Lemma rv_temp_ok p : (p < positions_rv)%N -> okr (temporary_from_position p).
Proof.
  rewrite positions_rv_val. intros H. unfold temporary_from_position.
  change RESERVED with 4%N. change REGISTER_NUM with 32%N. cbv zeta.
  destruct (N.ltb_spec (p + 4) 32); [apply okr_Ok|]. lia.
Qed.
Lemma rv_temp_limit : temporary_from_position positions_rv = Err "Out of registers".
Proof. reflexivity. Qed.

Lemma r_fresh_ok n (c : ctx) : (2 * N.of_nat (List.length c) + 2 <= positions_rv)%N -> okr (r_fresh n c).
Proof. intros H. unfold r_fresh. apply rv_temp_ok. destruct n; unfold tnum_n; lia. Qed.

Lemma store_field_ok n c block offset :
  (2 * N.of_nat (List.length c) + 2 <= positions_rv)%N -> okr (store_field n c block offset).
Proof. intros H. unfold store_field. okb; [apply r_fresh_ok; exact H|apply okr_Ok]. Qed.
Lemma load_field_ok n c block offset :
  (2 * N.of_nat (List.length c) + 2 <= positions_rv)%N -> okr (load_field n c block offset).
Proof. intros H. unfold load_field. okb; [apply r_fresh_ok; exact H|apply okr_Ok]. Qed.
Lemma store_value_ok b c block offset :
  (2 * N.of_nat (List.length c) + 2 <= positions_rv)%N -> okr (store_value b c block offset).
Proof.
  intros H. unfold store_value. okb; [apply store_field_ok; exact H|].
  destruct (bchi b); try apply okr_Ok; (okb; [apply store_field_ok; exact H|apply okr_Ok]).
Qed.
Lemma load_value_ok b c block offset m lc :
  (2 * N.of_nat (List.length c) + 2 <= positions_rv)%N -> okr (load_value b c block offset m lc).
Proof.
  intros H. unfold load_value. okb; [apply load_field_ok; exact H|].
  destruct (bchi b); try apply okr_Ok;
    (okb; [apply load_field_ok; exact H|];
     destruct m; [apply okr_Ok|]; okb; [apply r_fresh_ok; exact H|];
     destruct (r_share_block_n _ 1 lc); apply okr_Ok).
Qed.

Lemma store_values_ok block : forall l remaining ff,
  (2 * N.of_nat (List.length remaining + List.length l) + 2 <= positions_rv)%N ->
  okr (store_values l remaining block ff).
Proof.
  induction l as [|b l IH]; intros remaining ff H; cbn [store_values]; [apply okr_Ok|].
  cbn [List.length] in H. okb.
  - apply store_value_ok. rewrite app_length, rev_length. lia.
  - okb; [apply IH; lia|apply okr_Ok].
Qed.
Lemma load_values_ok block m : forall l existing ff lc,
  (2 * N.of_nat (List.length existing + List.length l) + 2 <= positions_rv)%N ->
  okr (load_values l existing block ff m lc).
Proof.
  induction l as [|b l IH]; intros existing ff lc H; cbn [load_values]; [apply okr_Ok|].
  cbn [List.length] in H. okb.
  - apply load_value_ok. rewrite app_length, rev_length. lia.
  - destruct x as [c1 lc1]. okb; [apply IH; lia|]. destruct x as [c2 lc2]. apply okr_Ok.
Qed.

Lemma store_fields_ok : forall fuel to_store remaining bp lc,
  (List.length to_store < fuel)%nat ->
  (2 * N.of_nat (List.length remaining + List.length to_store) + 2 <= positions_rv)%N ->
  okr (store_fields fuel to_store remaining bp lc).
Proof.
  induction fuel as [|fuel IH]; intros to_store remaining bp lc HF H; [lia|].
  cbn [store_fields]. destruct to_store as [|b0 l0] eqn:ETS.
  - destruct bp; [|apply okr_Ok]. okb; [apply r_fresh_ok; cbn [List.length] in H; lia|apply okr_Ok].
  - rewrite <- ETS in *. assert (NE : to_store <> []) by (rewrite ETS; discriminate).
    clear ETS. cbv zeta.
    set (k := N.to_nat (if N.leb (N.of_nat (List.length to_store)) (FIELDS_PER_BLOCK - bp_n bp)
                        then 0%N else (N.of_nat (List.length to_store) - (FIELDS_PER_BLOCK - bp_n bp))%N)) in *.
    destruct (split_rest to_store (FIELDS_PER_BLOCK - bp_n bp) k NE ltac:(destruct bp; reflexivity) eq_refl) as [RS FS].
    okb. { destruct bp; [apply okr_Ok|]. apply store_field_ok. rewrite app_length. exact H. }
    okb. { apply store_values_ok. rewrite rev_length, app_length. lia. }
    okb. { apply r_fresh_ok. rewrite app_length. lia. }
    okb. { apply r_fresh_ok. rewrite app_length. lia. }
    destruct (acquire_block x1 x2 lc) as [c2 lc2].
    okb; [apply IH; lia|]. destruct x3 as [c3 lc3]. apply okr_Ok.
Qed.

Lemma load_fields_ok : forall fuel to_load existing bp m lc,
  (List.length to_load < fuel)%nat ->
  (2 * N.of_nat (List.length existing + List.length to_load) + 2 <= positions_rv)%N ->
  okr (load_fields fuel to_load existing bp m lc).
Proof.
  induction fuel as [|fuel IH]; intros to_load existing bp m lc HF H; [lia|].
  cbn [load_fields]. destruct to_load as [|b0 l0] eqn:ETS; [apply okr_Ok|].
  rewrite <- ETS in *. assert (NE : to_load <> []) by (rewrite ETS; discriminate).
  clear ETS. cbv zeta.
  set (k := N.to_nat (if N.leb (N.of_nat (List.length to_load)) (FIELDS_PER_BLOCK - bp_n bp)
                      then 0%N else (N.of_nat (List.length to_load) - (FIELDS_PER_BLOCK - bp_n bp))%N)) in *.
  destruct (split_rest to_load (FIELDS_PER_BLOCK - bp_n bp) k NE ltac:(destruct bp; reflexivity) eq_refl) as [RS FS].
  okb; [apply IH; lia|]. destruct x as [c0 lc0].
  okb. { apply r_fresh_ok. rewrite app_length. lia. }
  okb. { destruct bp; [apply okr_Ok|]. apply load_field_ok. rewrite app_length. exact H. }
  okb. { apply load_values_ok. rewrite rev_length, app_length. lia. }
  destruct x1 as [c3 lc3]. apply okr_Ok.
Qed.

Lemma r_store_ok args rest lc :
  (2 * N.of_nat (List.length rest + List.length args) + 2 <= positions_rv)%N -> okr (r_store args rest lc).
Proof. intros H. unfold r_store. apply store_fields_ok; [lia|exact H]. Qed.

Lemma r_load_ok to_load existing lc :
  (2 * N.of_nat (List.length existing + List.length to_load) + 2 <= positions_rv)%N -> okr (r_load to_load existing lc).
Proof.
  intros H. unfold r_load. destruct to_load as [|b0 l0] eqn:E; [apply okr_Ok|]. rewrite <- E in *.
  okb; [apply r_fresh_ok; lia|].
  okb; [apply load_fields_ok; [lia|exact H]|]. destruct x0 as [tb lc1].
  okb; [apply load_fields_ok; [lia|exact H]|]. destruct x0 as [eb lc2].
  destruct (if_zero_then_else _ _ _ lc2). apply okr_Ok.
Qed.

Theorem rv_capacity_ok : capacity_ok rv_backend positions_rv.
Proof.
  split; cbn [rv_backend b_temporary_from_position b_store b_load].
  - exact rv_temp_ok.
  - exact r_store_ok.
  - exact r_load_ok.
Qed.

Theorem rv_codegen_total (p : prog) (lc : N) :
  lin_check_prog p = true -> within_capacity_rv p = true ->
  exists code lc', rv_compile p lc = Ok (code, main_arity p, lc').
Proof.
  intros L W. unfold within_capacity_rv in W.
  apply andb_true_iff in W as [W A]. apply andb_true_iff in W as [D C]. apply negb_true_iff in A.
  unfold rv_compile. rewrite A.
  exact (compile_total rv_backend positions_rv rv_backend_ok rv_capacity_ok K_rv
           ltac:(rewrite positions_rv_val, K_rv_val; lia) p lc L D C).
Qed.
Print Assumptions rv_codegen_total.
