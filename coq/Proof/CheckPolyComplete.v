(* C15, completeness of the checker (check_term_gen true: the code since fix d524b1f) with respect to
   the declarative rules, for programs WITH type parameters and type arguments (term level). *)
From Coq Require Import List ZArith String Bool Permutation Lia.
From SCC Require Import Base.Sexp Lang.SynUtil Lang.FunSyn Model.Check Sem.FunTyping
  Proof.FunInd Proof.FunEq Proof.CheckAnn Proof.TypingReject Proof.CheckBuild Proof.CheckMono Proof.CheckMonoSound
  Proof.CheckMonoComplete Proof.PrintInj Proof.CheckPoly Proof.CheckPolySound.
Import ListNotations.
Open Scope list_scope.

Record pwf_world (ts : list tdecl) (fs : list fdef) : Prop := {
  PWF_sigs : forall td s, In td ts -> In s (td_xtors td) ->
               forallb (fun b => wf_tty ts (td_params td) (fbty b)) (xs_args s) = true
               /\ (forall r, xs_ret s = Some r -> wf_tty ts (td_params td) r = true);
  PWF_defs : forall d, In d fs -> ctx_wf ts (fdctx d) = true /\ wf_ty ts (fdret d) = true
}.

Section PComplete.
  Variable ts : list tdecl.
  Variable fs : list fdef.
  Hypothesis W : poly_world ts fs.
  Hypothesis WF : pwf_world ts fs.

  Notation pinv := (pinv ts).
  Notation targs_ok := (targs_ok ts).

  Lemma ctx_wf_names_ok : forall c, ctx_wf ts c = true -> ctx_names_ok c = true.
  Proof.
    intros c H. unfold ctx_wf, ctx_names_ok in *. rewrite forallb_forall in *. intros b Hb.
    apply (wf_ty_names_ok ts fs W). auto.
  Qed.
  Lemma inst_ctx_wf : forall td s targs, In td ts -> In s (td_xtors td) -> forallb (wf_ty ts) targs = true ->
    ctx_wf ts (inst_ctx (td_params td) targs (xs_args s)) = true.
  Proof.
    intros td s targs Htd Hs Hw. destruct (PWF_sigs _ _ WF td s Htd Hs) as [Hsg _].
    unfold ctx_wf, inst_ctx. rewrite forallb_forall. rewrite forallb_forall in Hsg. intros b Hb.
    apply in_map_iff in Hb. destruct Hb as [b0 [<- Hb0]]. simpl. apply wf_tty_inst; auto.
  Qed.
  Lemma inst_ret_wf : forall td s r targs, In td ts -> In s (td_xtors td) -> xs_ret s = Some r ->
    forallb (wf_ty ts) targs = true -> wf_ty ts (inst (td_params td) targs r) = true.
  Proof.
    intros td s r targs Htd Hs Hr Hw. destruct (PWF_sigs _ _ WF td s Htd Hs) as [_ Hret].
    apply wf_tty_inst; auto.
  Qed.
  Lemma wf_decl : forall td targs, In td ts -> targs_ok td targs -> wf_ty ts (FDecl (td_name td) targs) = true.
  Proof.
    intros td targs Htd [Hl Hw]. simpl. rewrite (pw_find_type ts fs W td Htd), Hl, PeanoNat.Nat.eqb_refl. exact Hw.
  Qed.

  Definition pcomplete_at (t : fterm) : Prop :=
    forall st ctx T,
      term_names_ok t = true -> tables ts fs st -> pinv st ->
      ctx_wf ts ctx = true -> wf_ty ts T = true ->
      chk ts fs (E ctx) t T = true ->
      exists t' st', check_term_gen true t st ctx T = COk (t', st').

  (* success together with the frame conditions (from soundness) *)
  Lemma pcomplete_frame : forall t st ctx T,
    pcomplete_at t -> term_names_ok t = true -> tables ts fs st -> pinv st ->
    ctx_wf ts ctx = true -> wf_ty ts T = true -> chk ts fs (E ctx) t T = true ->
    exists t' st', check_term_gen true t st ctx T = COk (t', st')
                   /\ pinv st' /\ same_templates st st' /\ grows st st'.
  Proof.
    intros t st ctx T Hc Hm Tb I Hw HwT Hk.
    destruct (Hc st ctx T Hm Tb I Hw HwT Hk) as [t' [st' Hr]].
    destruct (check_term_gen_psound ts fs W t true st ctx T t' st' Hm (ctx_wf_names_ok _ Hw)
                (wf_ty_names_ok ts fs W _ HwT) Tb I Hr) as [_ [I' [S [G _]]]].
    eauto 10.
  Qed.

  Lemma ann_check_pok : forall (a : option fty) T st, ann_ok a T = true -> wf_ty ts T = true ->
    tables ts fs st -> pinv st ->
    exists st', match a with Some t => check_equality st t T | None => COk st end = COk st'
                /\ pinv st' /\ same_templates st st' /\ grows st st'.
  Proof.
    intros a T st Ha Hw Tb I. destruct a as [t|].
    - simpl in Ha. apply fty_eqb_eq in Ha. subst t.
      destruct (check_equality_ok ts fs W T st Hw Tb I) as [st' [H [I' [S [G _]]]]]. eauto 10.
    - exists st. splits; frame.
  Qed.

  Lemma check_args_with_pcomplete : forall args, Forall pcomplete_at args ->
    forall ps targs sg st ctx,
      terms_names_ok args = true -> tables ts fs st -> pinv st ->
      ctx_wf ts ctx = true -> ctx_wf ts (inst_ctx ps targs sg) = true ->
      chk_args_with (chk ts fs) (E ctx) ps targs args sg = true ->
      exists args' st', check_args_with (check_term_gen true) args (inst_ctx ps targs sg) st ctx = COk (args', st')
                        /\ pinv st' /\ same_templates st st' /\ grows st st'.
  Proof.
    intros args HF. induction HF as [|a ar Ha _ IH]; intros ps targs sg st ctx Hm Tb I Hw Hwt Hk.
    - destruct sg; [|discriminate]. simpl. exists [], st. splits; frame.
    - destruct sg as [|b br]; [discriminate|]. simpl in Hm, Hwt.
      apply andb_true_iff in Hm. destruct Hm as [Hma Hmr].
      apply andb_true_iff in Hwt. destruct Hwt as [Hwb Hwr].
      simpl in Hk. apply andb_true_iff in Hk. destruct Hk as [Hka Hkr].
      simpl. destruct (fbchi b) eqn:Ech.
      + destruct (ty_check_ok ts fs W _ st Hwb Tb I) as [st1 [H1 [I1 [S1 [G1 _]]]]]. rewrite H1. simpl.
        destruct (pcomplete_frame a st1 ctx _ Ha Hma (tables_same _ _ _ _ Tb S1) I1 Hw Hwb Hka) as [a' [st2 [H2 [I2 [S2 G2]]]]].
        rewrite H2. simpl.
        assert (S02 : same_templates st st2) by frame.
        destruct (IH ps targs br st2 ctx Hmr (tables_same _ _ _ _ Tb S02) I2 Hw Hwr Hkr) as [ar' [st3 [H3 [I3 [S3 G3]]]]].
        rewrite H3. simpl. exists (a' :: ar'), st3. splits; frame.
      + destruct a as [v ann chi| | | | | | | | | | | | | |]; try discriminate.
        apply andb_true_iff in Hka. destruct Hka as [Hka Hchi]. apply andb_true_iff in Hka. destruct Hka as [Hcns Hann].
        set (Tb0 := inst ps targs (fbty b)) in *.
        pose proof (E_is_cns _ _ _ Hcns) as Hl.
        (* the model matches on the written chirality in three branches with the same body: prove the body once *)
        assert (Hgo : exists ar' st', (doc found <- lookup_covar ctx v;
                                       doc st1 <- match ann with Some t => check_equality st t found | None => COk st end;
                                       doc st2 <- check_equality st1 Tb0 found;
                                       doc (ar', st3) <- check_args_with (check_term_gen true) ar (inst_ctx ps targs br) st2 ctx;
                                       COk (FVar v (Some found) (Some FCns) :: ar', st3)) = COk (FVar v (Some Tb0) (Some FCns) :: ar', st')
                                      /\ pinv st' /\ same_templates st st' /\ grows st st').
        { rewrite Hl. simpl.
          destruct (ann_check_pok ann Tb0 st Hann Hwb Tb I) as [st1 [H1 [I1 [S1 G1]]]]. rewrite H1. simpl.
          destruct (check_equality_ok ts fs W Tb0 st1 Hwb (tables_same _ _ _ _ Tb S1) I1) as [st2 [H2 [I2 [S2 [G2 _]]]]].
          rewrite H2. simpl. assert (S02 : same_templates st st2) by frame.
          destruct (IH ps targs br st2 ctx Hmr (tables_same _ _ _ _ Tb S02) I2 Hw Hwr Hkr) as [ar' [st3 [H3 [I3 [S3 G3]]]]].
          rewrite H3. simpl. exists ar', st3. splits; frame. }
        destruct Hgo as [ar' [st' [Hgo Hfr]]].
        destruct chi as [[|]|]; try discriminate; eauto.
  Qed.

  Lemma check_args_pcomplete : forall args, Forall pcomplete_at args ->
    forall ps targs sg st ctx,
      terms_names_ok args = true -> tables ts fs st -> pinv st ->
      ctx_wf ts ctx = true -> ctx_wf ts (inst_ctx ps targs sg) = true ->
      chk_args_with (chk ts fs) (E ctx) ps targs args sg = true ->
      exists args' st', check_args (check_term_gen true) args (inst_ctx ps targs sg) st ctx = COk (args', st')
                        /\ pinv st' /\ same_templates st st' /\ grows st st'.
  Proof.
    intros args HF ps targs sg st ctx Hm Tb I Hw Hwt Hk. unfold check_args.
    rewrite inst_ctx_length, (chk_args_length ts fs _ _ _ _ _ Hk), PeanoNat.Nat.eqb_refl. simpl.
    eapply check_args_with_pcomplete; eassumption.
  Qed.

  Definition inst_key (td : tdecl) (targs : list fty) : string := (td_name td ++ print_targs targs)%string.

  Lemma instance_entry_p : forall st td targs, pinv st -> In td ts -> targs_ok td targs ->
    ahas (st_types st) (inst_key td targs) = true ->
    aget (st_types st) (inst_key td targs) = Some (td_pol td, targs, map xs_name (td_xtors td)).
  Proof.
    intros st td targs I Htd Hok Ha. apply ahas_true in Ha. destruct Ha as [[[pol targs'] xs] Hg].
    destruct (pi_types _ _ I _ _ _ _ Hg) as [td' [Htd' [Ek [Hp [-> Hok']]]]]. rewrite Hg.
    destruct (instance_key_inj ts fs W td td' targs targs' Htd Htd' (targs_ok_names ts fs W _ _ Hok)
                (targs_ok_names ts fs W _ _ Hok') Ek) as [<- <-].
    subst pol. reflexivity.
  Qed.
  Lemma instance_ctor_p : forall st td targs s, pinv st -> In td ts -> targs_ok td targs -> td_pol td = FData ->
    ahas (st_types st) (inst_key td targs) = true -> In s (td_xtors td) ->
    aget (st_ctors st) (xs_name s ++ print_targs targs)%string = Some (inst_ctx (td_params td) targs (xs_args s)).
  Proof.
    intros st td targs s I Htd Hok Hp Ha Hs. pose proof (instance_entry_p st td targs I Htd Hok Ha) as Hg. rewrite Hp in Hg.
    pose proof (pi_xtors_of _ _ I _ _ _ _ (xs_name s) Hg (in_map _ _ _ Hs)) as Hh. simpl in Hh.
    apply ahas_true in Hh. destruct Hh as [sg Hc]. rewrite Hc. f_equal.
    destruct (ctor_instance_sound ts fs W _ _ _ _ I (PW_xnames _ _ W td s Htd Hs) (targs_ok_names ts fs W _ _ Hok) Hc)
      as [td' [s' [Htd' [Hp' [Hs' [Hn' [_ ->]]]]]]].
    destruct (xtor_owner_unique ts fs W td td' s s' Htd Htd' ltac:(congruence) Hs Hs' ltac:(congruence)) as [<- <-].
    reflexivity.
  Qed.
  Lemma instance_dtor_p : forall st td targs s, pinv st -> In td ts -> targs_ok td targs -> td_pol td = FCodata ->
    ahas (st_types st) (inst_key td targs) = true -> In s (td_xtors td) ->
    exists r, xs_ret s = Some r
      /\ aget (st_dtors st) (xs_name s ++ print_targs targs)%string
         = Some (inst_ctx (td_params td) targs (xs_args s), inst (td_params td) targs r).
  Proof.
    intros st td targs s I Htd Hok Hp Ha Hs. pose proof (instance_entry_p st td targs I Htd Hok Ha) as Hg. rewrite Hp in Hg.
    pose proof (pi_xtors_of _ _ I _ _ _ _ (xs_name s) Hg (in_map _ _ _ Hs)) as Hh. simpl in Hh.
    apply ahas_true in Hh. destruct Hh as [[sg ret] Hc]. rewrite Hc.
    destruct (dtor_instance_sound ts fs W _ _ _ _ _ I (PW_xnames _ _ W td s Htd Hs) (targs_ok_names ts fs W _ _ Hok) Hc)
      as [td' [s' [r0 [Htd' [Hp' [Hs' [Hn' [_ [Hr [-> ->]]]]]]]]]].
    destruct (xtor_owner_unique ts fs W td td' s s' Htd Htd' ltac:(congruence) Hs Hs' ltac:(congruence)) as [<- <-].
    eauto.
  Qed.
  Lemma lookup_ty_for_xtor_found_p : forall st pol x key targs xs,
    aget (st_types st) key = Some (pol, targs, xs) -> In x xs ->
    exists ty xs', lookup_ty_for_xtor pol st (x ++ print_targs targs)%string = Some (ty, xs').
  Proof.
    intros st pol x key targs xs Hg Hx. unfold lookup_ty_for_xtor.
    apply aget_In in Hg. revert Hg. generalize (st_types st). intros l.
    induction l as [|[name [[p targs'] xtors]] r IH]; intros Hin; [destruct Hin|].
    simpl. destruct (fpol_eqb p pol && xtor_matches (print_targs targs') (x ++ print_targs targs)%string xtors) eqn:Ec; [eauto|].
    destruct Hin as [Heq|Hin]; [|auto].
    inversion Heq; subst. rewrite fpol_eqb_refl in Ec. simpl in Ec.
    assert (xtor_matches (print_targs targs) (x ++ print_targs targs)%string xs = true).
    { unfold xtor_matches. apply existsb_exists. exists x. split; [assumption|]. apply String.eqb_refl. }
    congruence.
  Qed.

  Definition pc_pcomplete (pc : pclause) : Prop :=
    forall st ctx T,
      tables ts fs st -> pinv st ->
      ctx_wf ts ctx = true -> wf_ty ts T = true -> chk ts fs (E ctx) (pc_body pc) T = true ->
      exists t' st', pc_chk pc st ctx T = COk (t', st').

  (* [pcomplete_at] promises success only; the frame of each clause body (needed to go on with the next clause) comes
     from soundness, hence [pc_psound].  The argument rests on: the instance of the type exists ([ahas ..]), so every
     xtor signature is in the table, and the xtors are distinct ([NoDup]), so removing a clause leaves the others. *)
  Lemma check_clauses_pcomplete : forall (is_case : bool) T td targs xtors pcls st ctx,
    Forall (pc_psound ts fs) pcls -> Forall pc_pcomplete pcls ->
    ctx_wf ts ctx = true -> tables ts fs st -> pinv st ->
    In td ts -> targs_ok td targs -> td_pol td = (if is_case then FData else FCodata) ->
    (is_case = true -> wf_ty ts T = true) ->
    ahas (st_types st) (inst_key td targs) = true ->
    NoDup xtors -> (forall x, In x xtors -> In x (map xs_name (td_xtors td))) ->
    (forall x, In x xtors -> exists pc, In pc pcls /\ pc_xtor pc = x) ->
    Forall (fun pc => clause_ok ts fs (E ctx) td targs (if is_case then Some T else None) (clause_of pc) = true) pcls ->
    exists cls' leftover st', check_clauses is_case (print_targs targs) T xtors pcls st ctx = COk (cls', leftover, st')
      /\ pinv st' /\ same_templates st st' /\ grows st st'.
  Proof.
    intros is_case T td targs xtors. induction xtors as [|x xr IH];
      intros pcls st ctx HS HC Hwc Tb I Htd Hok Hpol HT Hinst Hnd Hxs Hex Hcok.
    - simpl. exists [], pcls, st. splits; frame.
    - simpl. destruct (Hex x (or_introl eq_refl)) as [pc0 [Hpc0 Hx0]].
      destruct (swap_remove_first_some (fun c => String.eqb (pc_xtor c) x) pcls pc0 Hpc0) as [cl [pcls' Es]];
        [rewrite Hx0; apply String.eqb_refl|].
      rewrite Es. pose proof (swap_remove_first_spec _ _ _ _ Es) as [Hx Hperm]. apply String.eqb_eq in Hx.
      assert (Hall : forall (P : pclause -> Prop), Forall P pcls -> P cl /\ Forall P pcls').
      { intros P HP. assert (HP' : Forall P (cl :: pcls')) by (eapply Permutation_Forall; [apply Permutation_sym; eassumption|assumption]).
        inversion HP'; auto. }
      destruct (Hall _ HS) as [HScl HSr]. destruct (Hall _ HC) as [HCcl HCr]. destruct (Hall _ Hcok) as [Hokcl Hokr].
      (* the clause is fine by the rules *)
      unfold clause_of, clause_ok in Hokcl. rewrite Hx in Hokcl.
      destruct (find_xsig td x) as [s|] eqn:Hs; [|discriminate].
      apply andb_true_iff in Hokcl. destruct Hokcl as [Hokcl Hbody]. apply andb_true_iff in Hokcl. destruct Hokcl as [Hnod Hlen].
      destruct (find_xsig_spec _ _ _ Hs) as [Hsin Hsn].
      destruct Hok as [Hlt Hwt].
      pose proof (inst_ctx_wf td s targs Htd Hsin Hwt) as Hws.
      rewrite extend_sig_inst in Hbody.
      set (sg := inst_ctx (td_params td) targs (xs_args s)) in *.
      (* the signature in the table, and the type of the body *)
      assert (Hsig : exists bty,
                (if is_case
                 then match aget (st_ctors st) (x ++ print_targs targs)%string with Some sg => COk (sg, T) | None => CErr EUndefined end
                 else match aget (st_dtors st) (x ++ print_targs targs)%string with Some (sg, ret) => COk (sg, ret) | None => CErr EUndefined end)
                = COk (sg, bty)
                /\ wf_ty ts bty = true
                /\ chk ts fs (E (ctx ++ zip_names (pc_names cl) sg)) (pc_body cl) bty = true).
      { unfold E. rewrite env_of_ctx_app. fold (E ctx). rewrite <- Hsn. destruct is_case.
        - rewrite (instance_ctor_p st td targs s I Htd (conj Hlt Hwt) Hpol Hinst Hsin). exists T. auto.
        - destruct (instance_dtor_p st td targs s I Htd (conj Hlt Hwt) Hpol Hinst Hsin) as [r [Hr Hd]]. rewrite Hd.
          exists (inst (td_params td) targs r). rewrite Hr in Hbody.
          split; [reflexivity|]. split; [eapply inst_ret_wf; eassumption|assumption]. }
      destruct Hsig as [bty [Hsig [Hwb Hkb]]]. rewrite Hsig. simpl.
      rewrite (nodup_names_no_dups _ Hnod). simpl.
      unfold add_types. unfold sg at 1. rewrite inst_ctx_length, Hlen. simpl.
      assert (Hwc' : ctx_wf ts (ctx ++ zip_names (pc_names cl) sg) = true)
        by (apply ctx_wf_app; [assumption|apply ctx_wf_zip; assumption]).
      destruct (HCcl st _ bty Tb I Hwc' Hwb Hkb) as [body' [st1 Hb]].
      destruct (HScl st _ bty body' st1 (ctx_wf_names_ok _ Hwc') (wf_ty_names_ok ts fs W _ Hwb) Tb I Hb) as [_ [I1 [S1 [G1 _]]]].
      rewrite Hb. simpl.
      inversion Hnd as [|? ? Hnotin Hnd']; subst.
      destruct (IH pcls' st1 ctx HSr HCr Hwc (tables_same _ _ _ _ Tb S1) I1 Htd (conj Hlt Hwt) Hpol HT (G1 _ Hinst) Hnd')
        as [rest [leftover [st2 [Hr [I2 [S2 G2]]]]]]; try assumption.
      + intros y Hy. apply Hxs. right. assumption.
      + intros y Hy. destruct (Hex y (or_intror Hy)) as [pc [Hpc Hpx]].
        exists pc. split; [|assumption].
        apply (Permutation_in _ (Permutation_sym Hperm)) in Hpc. destruct Hpc as [<-|Hpc]; [|assumption].
        exfalso. apply Hnotin. rewrite <- Hx, Hpx. assumption.
      + rewrite Hr. simpl. eexists _, leftover, st2. splits; frame.
  Qed.

  Lemma prep_clauses_pcomplete : forall cls,
    Forall (fun c => pcomplete_at (clause_body c)) cls -> clauses_names_ok cls = true ->
    Forall pc_pcomplete (prep_clauses (check_term_gen true) cls).
  Proof.
    intros cls HF. induction HF as [|[p x ns c b] r Hc _ IH]; intros Hm; simpl; constructor.
    - simpl in Hm. apply andb_true_iff in Hm. destruct Hm as [Hb _].
      unfold clause_names_ok in Hb. apply andb_true_iff in Hb. destruct Hb as [_ Hb].
      unfold pc_pcomplete. simpl. intros. eapply Hc; eassumption.
    - apply IH. simpl in Hm. apply andb_true_iff in Hm. tauto.
  Qed.

  Lemma clauses_pcomplete_result : forall (is_case : bool) T td targs cls st ctx,
    Forall (fun c => pcomplete_at (clause_body c)) cls ->
    clauses_names_ok cls = true -> ctx_wf ts ctx = true -> tables ts fs st -> pinv st ->
    In td ts -> targs_ok td targs -> td_pol td = (if is_case then FData else FCodata) ->
    (is_case = true -> wf_ty ts T = true) ->
    ahas (st_types st) (inst_key td targs) = true ->
    same_names (map clause_xtor cls) (map xs_name (td_xtors td)) = true ->
    chk_clauses_with (chk ts fs) (E ctx) td targs (if is_case then Some T else None) cls = true ->
    exists cls' st', check_clauses is_case (print_targs targs) T (map xs_name (td_xtors td)) (prep_clauses (check_term_gen true) cls) st ctx
                     = COk (cls', [], st')
                     /\ pinv st' /\ same_templates st st' /\ grows st st'.
  Proof.
    intros is_case T td targs cls st ctx HC Hm Hwc Tb I Htd Hok Hpol HT Hinst Hsn Hk.
    assert (HS : Forall (fun c => psound_at ts fs (clause_body c)) cls).
    { apply Forall_forall. intros c _. apply (check_term_gen_psound ts fs W). }
    pose proof (prep_clauses_psound ts fs true cls HS Hm) as HPS.
    assert (Hnd : nodup (map xs_name (td_xtors td)) = true).
    { eapply xtor_names_of_type_nodup; [apply (pw_nodup_xtors ts fs W)|eassumption|reflexivity]. }
    destruct (check_clauses_pcomplete is_case T td targs (map xs_name (td_xtors td)) (prep_clauses (check_term_gen true) cls) st ctx
                HPS (prep_clauses_pcomplete cls HC Hm) Hwc Tb I Htd Hok Hpol HT Hinst (nodup_NoDup _ Hnd) (fun x H => H))
      as [cls' [leftover [st' [Hr [I' [S G]]]]]].
    - intros x Hx. pose proof (same_names_covers _ _ Hsn x Hx) as Hin.
      apply in_map_iff in Hin. destruct Hin as [c [Hcx Hc]].
      rewrite <- (prep_clauses_map (check_term_gen true) cls) in Hc. apply in_map_iff in Hc. destruct Hc as [pc [<- Hpc]].
      exists pc. split; assumption.
    - apply Forall_forall. intros pc Hpc. rewrite chk_clauses_forallb, forallb_forall in Hk.
      apply Hk. eapply prep_clauses_in. eassumption.
    - exists cls', st'. splits; try assumption.
      assert (HT' : is_case = true -> ty_names_ok T = true) by (intros E0; apply (wf_ty_names_ok ts fs W); apply HT; assumption).
      destruct (check_clauses_psound ts fs W is_case T td targs _ _ st ctx cls' leftover st' HPS (ctx_wf_names_ok _ Hwc) Tb I Htd Hok
                  (fun x H => H) Hpol HT' Hr) as [used [Hp [Hmap _]]].
      assert (Hlen : List.length leftover = 0).
      { apply Permutation_length in Hp. rewrite app_length, prep_clauses_length in Hp.
        assert (List.length used = List.length (map xs_name (td_xtors td))) by (rewrite <- Hmap, map_length; reflexivity).
        unfold same_names in Hsn. apply andb_true_iff in Hsn. destruct Hsn as [Hsn _]. apply andb_true_iff in Hsn. destruct Hsn as [_ Hl].
        apply PeanoNat.Nat.eqb_eq in Hl. rewrite map_length in Hl. lia. }
      destruct leftover; [exact Hr|discriminate].
  Qed.

  Lemma lookup_or_template_pcomplete : forall pol st x td sg targs,
    tables ts fs st -> pinv st -> find_xtor ts pol x = Some (td, sg) -> targs_ok td targs ->
    exists st1, lookup_ty_for_xtor_or_template pol st x targs = COk (FDecl (td_name td) targs, map xs_name (td_xtors td), st1)
                /\ pinv st1 /\ same_templates st st1 /\ grows st st1 /\ ahas (st_types st1) (inst_key td targs) = true.
  Proof.
    intros pol st x td sg targs Tb I Hf Hok. pose proof (find_xtor_in _ _ _ _ _ Hf) as [Hin [Hp Hs]].
    destruct (find_xsig_spec _ _ _ Hs) as [Hsin Hsn].
    pose proof (PW_xnames _ _ W td sg Hin Hsin) as Nx. rewrite Hsn in Nx.
    pose proof (targs_ok_names ts fs W _ _ Hok) as Nt.
    unfold lookup_ty_for_xtor_or_template.
    destruct (lookup_ty_for_xtor pol st (x ++ print_targs targs)%string) as [[ty xs]|] eqn:El.
    - destruct (lookup_ty_for_xtor_sound ts fs W _ _ _ _ _ _ I Nx Nt El) as [td' [Htd' [Hp' [-> [-> [Hx' Hok']]]]]].
      assert (td' = td).
      { eapply (owner_of_names ts fs W); [exact Htd'|exact Hin|congruence|exact Hx'|]. rewrite <- Hsn. apply in_map. assumption. }
      subst td'. exists st. splits; frame.
      exact (proj2 Hok').
    - unfold lookup_ty_template_for_xtor. rewrite (t_tt_list _ _ _ Tb), find_template_find_xtor, Hf. simpl.
      destruct (ty_check_ok ts fs W (FDecl (td_name td) targs) st (wf_decl td targs Hin Hok) Tb I) as [st1 [H1 [I1 [S1 [G1 Hi]]]]].
      exists st1. split; [|splits; assumption].
      (* unfold the lookup around ty_check by conversion: simpl would unfold ty_check itself *)
      transitivity (doc st1' <- ty_check (FDecl (td_name td) targs) st; COk (FDecl (td_name td) targs, map xs_name (td_xtors td), st1')); [reflexivity|].
      rewrite H1. reflexivity.
  Qed.

  (* simpl on check_term_gen must stop at ty_check *)
  Local Opaque ty_check.

  Theorem check_term_pcomplete : forall t, pcomplete_at t.
  Proof.
    intros t. induction t using fterm_ind'; unfold pcomplete_at;
      intros st ctx T Hm Tb I Hw HwT Hk; simpl in Hk; simpl in Hm.
    - (* FVar *)
      apply andb_true_iff in Hk. destruct Hk as [Hk Hchi]. apply andb_true_iff in Hk. destruct Hk as [Hprd Hann].
      pose proof (E_prd _ _ _ Hprd) as Hl.
      destruct (ann_check_pok ty T st Hann HwT Tb I) as [st1 [H1 [I1 [S1 G1]]]].
      destruct (check_equality_ok ts fs W T st1 HwT (tables_same _ _ _ _ Tb S1) I1) as [st2 [H2 _]].
      (* as for a consumer argument: one body under the three branches on chi *)
      assert (Hgo : (doc found <- lookup_var ctx v;
                     doc st1 <- match ty with Some t => check_equality st t found | None => COk st end;
                     doc st2 <- check_equality st1 T found; COk (FVar v (Some T) (Some FPrd), st2))
                    = COk (FVar v (Some T) (Some FPrd), st2)).
      { rewrite Hl. simpl. rewrite H1. simpl. rewrite H2. reflexivity. }
      simpl. destruct chi as [[|]|]; try discriminate; eauto.
    - (* FLit *)
      apply fty_eqb_eq in Hk. subst T. simpl.
      destruct (check_equality_ok ts fs W FI64 st eq_refl Tb I) as [st1 [H1 _]].
      rewrite H1. simpl. eauto.
    - (* FOp *)
      apply andb_true_iff in Hm. destruct Hm as [Hm1 Hm2].
      apply andb_true_iff in Hk. destruct Hk as [Hk K2]. apply andb_true_iff in Hk. destruct Hk as [K0 K1].
      apply fty_eqb_eq in K0. subst T. simpl.
      destruct (check_equality_ok ts fs W FI64 st eq_refl Tb I) as [st1 [H1 [I1 [S1 [G1 _]]]]].
      rewrite H1. simpl.
      destruct (pcomplete_frame _ st1 ctx FI64 IHt1 Hm1 (tables_same _ _ _ _ Tb S1) I1 Hw eq_refl K1) as [a' [st2 [H2 [I2 [S2 G2]]]]].
      rewrite H2. simpl. assert (S02 : same_templates st st2) by frame.
      destruct (IHt2 st2 ctx FI64 Hm2 (tables_same _ _ _ _ Tb S02) I2 Hw eq_refl K2) as [b' [st3 H3]].
      rewrite H3. simpl. eauto.
    - (* FIfC *)
      apply andb_true_iff in Hm. destruct Hm as [Hm Hm4]. apply andb_true_iff in Hm. destruct Hm as [Hm Hm3].
      apply andb_true_iff in Hm. destruct Hm as [Hm1 Hm2].
      apply andb_true_iff in Hk. destruct Hk as [Hk K4]. apply andb_true_iff in Hk. destruct Hk as [Hk K3].
      apply andb_true_iff in Hk. destruct Hk as [K1 K2].
      simpl.
      destruct (pcomplete_frame _ st ctx FI64 IHt1 Hm1 Tb I Hw eq_refl K1) as [a' [st1 [H1 [I1 [S1 G1]]]]].
      rewrite H1. simpl.
      assert (Hb : exists b' st2, match b with
                                  | None => COk (None, st1)
                                  | Some b0 => doc (b1, s0) <- check_term_gen true b0 st1 ctx FI64; COk (Some b1, s0)
                                  end = COk (b', st2) /\ pinv st2 /\ same_templates st1 st2 /\ grows st1 st2).
      { destruct b as [b0|].
        - destruct (pcomplete_frame b0 st1 ctx FI64 (H _ eq_refl) Hm2 (tables_same _ _ _ _ Tb S1) I1 Hw eq_refl K2) as [b1 [st2 [H2 [I2 [S2 G2]]]]].
          rewrite H2. simpl. eauto 10.
        - exists None, st1. splits; frame. }
      destruct Hb as [b' [st2 [H2 [I2 [S2 G2]]]]]. rewrite H2. simpl.
      assert (S02 : same_templates st st2) by frame.
      destruct (pcomplete_frame _ st2 ctx T IHt2 Hm3 (tables_same _ _ _ _ Tb S02) I2 Hw HwT K3) as [th' [st3 [H3 [I3 [S3 G3]]]]].
      rewrite H3. simpl. assert (S03 : same_templates st st3) by frame.
      destruct (IHt3 st3 ctx T Hm4 (tables_same _ _ _ _ Tb S03) I3 Hw HwT K4) as [el' [st4 H4]].
      rewrite H4. simpl. eauto.
    - (* FPrint *)
      apply andb_true_iff in Hm. destruct Hm as [Hm1 Hm2].
      apply andb_true_iff in Hk. destruct Hk as [K1 K2]. simpl.
      destruct (pcomplete_frame _ st ctx FI64 IHt1 Hm1 Tb I Hw eq_refl K1) as [a' [st1 [H1 [I1 [S1 G1]]]]].
      rewrite H1. simpl.
      destruct (IHt2 st1 ctx T Hm2 (tables_same _ _ _ _ Tb S1) I1 Hw HwT K2) as [n' [st2 H2]].
      rewrite H2. simpl. eauto.
    - (* FLet *)
      apply andb_true_iff in Hm. destruct Hm as [Hm Hm3]. apply andb_true_iff in Hm. destruct Hm as [Hm1 Hm2].
      apply andb_true_iff in Hk. destruct Hk as [Hk K2]. apply andb_true_iff in Hk. destruct Hk as [Kw K1]. simpl.
      destruct (ty_check_ok ts fs W vty st Kw Tb I) as [st1 [H1 [I1 [S1 [G1 _]]]]]. rewrite H1. simpl.
      destruct (pcomplete_frame _ st1 ctx vty IHt1 Hm2 (tables_same _ _ _ _ Tb S1) I1 Hw Kw K1) as [a' [st2 [H2 [I2 [S2 G2]]]]].
      rewrite H2. simpl. assert (S02 : same_templates st st2) by frame.
      assert (Hw' : ctx_wf ts (ctx ++ [mkfb v FPrd vty]) = true).
      { apply ctx_wf_app; [assumption|]. unfold ctx_wf. simpl. rewrite Kw. reflexivity. }
      rewrite <- E_snoc in K2.
      destruct (IHt2 st2 _ T Hm3 (tables_same _ _ _ _ Tb S02) I2 Hw' HwT K2) as [b' [st3 H3]].
      rewrite H3. simpl. eauto.
    - (* FCall *)
      rewrite terms_names_ok_eq in Hm.
      destruct (find_def fs f) as [d|] eqn:Ef; [|discriminate].
      apply andb_true_iff in Hk. destruct Hk as [Kr Ka]. apply fty_eqb_eq in Kr. subst T.
      assert (Hdin : In d fs) by (unfold find_def in Ef; apply find_some in Ef; tauto).
      destruct (PWF_defs _ _ WF d Hdin) as [Hwd Hwr].
      simpl. rewrite (t_df _ _ _ Tb), Ef. simpl.
      destruct (check_equality_ok ts fs W (fdret d) st Hwr Tb I) as [st1 [H1 [I1 [S1 [G1 _]]]]].
      rewrite H1. simpl.
      assert (Hwd' : ctx_wf ts (inst_ctx [] [] (fdctx d)) = true) by (rewrite inst_ctx_nil; exact Hwd).
      destruct (check_args_pcomplete args H [] [] (fdctx d) st1 ctx Hm (tables_same _ _ _ _ Tb S1) I1 Hw Hwd' Ka) as [args' [st2 [H2 _]]].
      rewrite inst_ctx_nil in H2. rewrite H2. simpl. eauto.
    - (* FCtor *)
      apply andb_true_iff in Hm. destruct Hm as [Nx Hm]. rewrite terms_names_ok_eq in Hm.
      destruct T as [|n targs]; [discriminate|].
      destruct (find_type ts n) as [td|] eqn:Eft; [|discriminate].
      apply andb_true_iff in Hk. destruct Hk as [Hk Ka]. apply andb_true_iff in Hk. destruct Hk as [Kp Kl].
      apply fpol_eqb_eq in Kp. apply PeanoNat.Nat.eqb_eq in Kl.
      destruct (find_xsig td x) as [s|] eqn:Es; [|discriminate].
      pose proof (find_type_in _ _ _ Eft) as Hin. pose proof (find_type_name _ _ _ Eft) as Hn. subst n.
      destruct (find_xsig_spec _ _ _ Es) as [Hsin Hsn].
      pose proof (wf_decl_inv ts fs W td targs Hin HwT) as Hok. destruct Hok as [_ Hwt].
      simpl.
      destruct (ty_check_ok ts fs W (FDecl (td_name td) targs) st HwT Tb I) as [st0 [H0 [I0 [S0 [G0 Hi0]]]]].
      simpl in Hi0. pose proof (tables_same _ _ _ _ Tb S0) as Tb0.
      rewrite H0. simpl.
      rewrite <- Hsn.
      rewrite (instance_ctor_p st0 td targs s I0 Hin (conj Kl Hwt) Kp Hi0 Hsin).
      pose proof (instance_entry_p st0 td targs I0 Hin (conj Kl Hwt) Hi0) as Hent. rewrite Kp in Hent.
      destruct (lookup_ty_for_xtor_found_p st0 FData (xs_name s) _ _ _ Hent (in_map _ _ _ Hsin)) as [ty [xs' El]]. rewrite El.
      rewrite <- Hsn in Nx.
      destruct (lookup_ty_for_xtor_sound ts fs W _ _ _ _ _ _ I0 Nx (wf_tys_names_ok ts fs W _ Hwt) El)
        as [td' [Htd' [Hp' [-> [-> [Hx' _]]]]]].
      assert (td' = td).
      { eapply (owner_of_names ts fs W); [exact Htd'|exact Hin|congruence|exact Hx'|]. apply in_map. assumption. }
      subst td'.
      destruct (check_args_pcomplete args H _ _ _ st0 ctx Hm Tb0 I0 Hw (inst_ctx_wf td s targs Hin Hsin Hwt) Ka) as [args' [st1 [H1 [I1 [S1 G1]]]]].
      rewrite H1. simpl. assert (S01 : same_templates st st1) by frame.
      destruct (check_equality_ok ts fs W (FDecl (td_name td) targs) st1 HwT (tables_same _ _ _ _ Tb S01) I1) as [st2 [H2 _]].
      rewrite H2. simpl. eauto.
    - (* FDtor *)
      apply andb_true_iff in Hm. destruct Hm as [Hm Hm3]. apply andb_true_iff in Hm. destruct Hm as [Hm Hm2].
      apply andb_true_iff in Hm. destruct Hm as [Nx Nt].
      rewrite terms_names_ok_eq in Hm3.
      destruct (find_xtor ts FCodata x) as [[td sg]|] eqn:Ef; [|discriminate].
      apply andb_true_iff in Hk. destruct Hk as [Hk Kr]. apply andb_true_iff in Hk. destruct Hk as [Hk Ka].
      apply andb_true_iff in Hk. destruct Hk as [Hk Ks]. apply andb_true_iff in Hk. destruct Hk as [Kl Kw].
      apply PeanoNat.Nat.eqb_eq in Kl.
      pose proof (find_xtor_in _ _ _ _ _ Ef) as [Hin [Hp Hs]].
      destruct (find_xsig_spec _ _ _ Hs) as [Hsin Hsn].
      destruct (xs_ret sg) as [R|] eqn:ER; [|discriminate]. apply fty_eqb_eq in Kr. subst T.
      simpl.
      destruct (lookup_or_template_pcomplete FCodata st x td sg targs Tb I Ef (conj Kl Kw)) as [st1 [H1 [I1 [S1 [G1 Hi1]]]]].
      rewrite H1. simpl.
      pose proof (wf_decl td targs Hin (conj Kl Kw)) as Hwtd.
      destruct (pcomplete_frame _ st1 ctx _ IHt Hm2 (tables_same _ _ _ _ Tb S1) I1 Hw Hwtd Ks) as [s' [st2 [H2 [I2 [S2 G2]]]]].
      rewrite H2. simpl. assert (S02 : same_templates st st2) by frame. pose proof (tables_same _ _ _ _ Tb S02) as Tb2.
      destruct (instance_dtor_p st2 td targs sg I2 Hin (conj Kl Kw) Hp (G2 _ Hi1) Hsin) as [rr [Hr Hd]].
      rewrite ER in Hr. inversion Hr; subst rr. rewrite Hsn in Hd. rewrite Hd.
      destruct (check_args_pcomplete args H _ _ _ st2 ctx Hm3 Tb2 I2 Hw (inst_ctx_wf td sg targs Hin Hsin Kw) Ka) as [args' [st3 [H3 [I3 [S3 G3]]]]].
      rewrite H3. simpl. assert (S03 : same_templates st st3) by frame.
      destruct (check_equality_ok ts fs W _ st3 HwT (tables_same _ _ _ _ Tb S03) I3) as [st4 [H4 _]].
      rewrite H4. simpl. eauto.
    - (* FCase *)
      apply andb_true_iff in Hm. destruct Hm as [Hm Hm3]. apply andb_true_iff in Hm. destruct Hm as [Nt Hm2].
      rewrite clauses_names_ok_eq in Hm3.
      destruct cls as [|c0 clr]; [discriminate|].
      destruct (find_xtor ts FData (clause_xtor c0)) as [[td sg]|] eqn:Ef; [|discriminate].
      apply andb_true_iff in Hk. destruct Hk as [Hk Kc]. apply andb_true_iff in Hk. destruct Hk as [Hk Ksn].
      apply andb_true_iff in Hk. destruct Hk as [Hk Ks]. apply andb_true_iff in Hk. destruct Hk as [Kl Kw].
      apply PeanoNat.Nat.eqb_eq in Kl.
      pose proof (find_xtor_in _ _ _ _ _ Ef) as [Hin [Hp Hs]].
      pose proof (wf_decl td targs Hin (conj Kl Kw)) as Hwtd.
      destruct c0 as [p0 x0 ns0 cx0 b0]. simpl clause_xtor in Ef.
      simpl.
      destruct (lookup_or_template_pcomplete FData st x0 td sg targs Tb I Ef (conj Kl Kw)) as [st1 [H1 [I1 [S1 [G1 Hi1]]]]].
      rewrite H1. simpl.
      destruct (pcomplete_frame _ st1 ctx _ IHt Hm2 (tables_same _ _ _ _ Tb S1) I1 Hw Hwtd Ks) as [s' [st2 [H2 [I2 [S2 G2]]]]].
      rewrite H2. simpl. assert (S02 : same_templates st st2) by frame.
      destruct (clauses_pcomplete_result true T td targs (FClause p0 x0 ns0 cx0 b0 :: clr) st2 ctx H Hm3 Hw
                  (tables_same _ _ _ _ Tb S02) I2 Hin (conj Kl Kw) Hp (fun _ => HwT) (G2 _ Hi1) Ksn Kc)
        as [cls' [st3 [H3 _]]].
      change (prep_clauses (check_term_gen true) (FClause p0 x0 ns0 cx0 b0 :: clr)) with
        (mkpc p0 x0 ns0 cx0 b0 (check_term_gen true b0) :: prep_clauses (check_term_gen true) clr) in H3.
      rewrite H3. simpl. eauto.
    - (* FNew *)
      rewrite clauses_names_ok_eq in Hm.
      destruct T as [|n targs]; [discriminate|].
      destruct (find_type ts n) as [td|] eqn:Eft; [|discriminate].
      apply andb_true_iff in Hk. destruct Hk as [Hk Kc]. apply andb_true_iff in Hk. destruct Hk as [Hk Ksn].
      apply andb_true_iff in Hk. destruct Hk as [Kp Kl]. apply fpol_eqb_eq in Kp. apply PeanoNat.Nat.eqb_eq in Kl.
      pose proof (find_type_in _ _ _ Eft) as Hin. pose proof (find_type_name _ _ _ Eft) as Hn. subst n.
      pose proof (wf_decl_inv ts fs W td targs Hin HwT) as Hok. destruct Hok as [_ Hwt].
      simpl.
      destruct (ty_check_ok ts fs W (FDecl (td_name td) targs) st HwT Tb I) as [st0 [H0 [I0 [S0 [G0 Hi0]]]]].
      simpl in Hi0. pose proof (tables_same _ _ _ _ Tb S0) as Tb0.
      rewrite H0. simpl.
      pose proof (instance_entry_p st0 td targs I0 Hin (conj Kl Hwt) Hi0) as Hent. rewrite Kp in Hent.
      unfold inst_key in Hent. rewrite Hent.
      destruct (clauses_pcomplete_result false (FDecl (td_name td) targs) td targs cls st0 ctx H Hm Hw
                  Tb0 I0 Hin (conj Kl Hwt) Kp (fun E0 => ltac:(discriminate)) Hi0 Ksn Kc)
        as [cls' [st3 [H3 _]]].
      rewrite H3. simpl. eauto.
    - (* FLabel *)
      simpl.
      assert (Hw' : ctx_wf ts (ctx ++ [mkfb l FCns T]) = true).
      { apply ctx_wf_app; [assumption|]. unfold ctx_wf. simpl. rewrite HwT. reflexivity. }
      rewrite <- E_snoc in Hk.
      destruct (IHt st _ T Hm Tb I Hw' HwT Hk) as [b' [st1 H1]]. rewrite H1. simpl. eauto.
    - (* FGoto *)
      destruct (cns_ty (E ctx) l) as [S0|] eqn:Ec; [|discriminate].
      destruct (E_cns _ _ _ Ec) as [Hl [b0 [Hb0 Hbt]]].
      simpl. rewrite Hl. simpl.
      assert (HwS : wf_ty ts S0 = true) by (subst S0; apply (ctx_wf_in ts ctx); assumption).
      destruct (IHt st ctx S0 Hm Tb I Hw HwS Hk) as [b' [st1 H1]]. rewrite H1. simpl. eauto.
    - (* FExit *)
      simpl. destruct (IHt st ctx FI64 Hm Tb I Hw eq_refl Hk) as [b' [st1 H1]]. rewrite H1. simpl. eauto.
    - (* FParen *)
      simpl. destruct (IHt st ctx T Hm Tb I Hw HwT Hk) as [b' [st1 H1]]. rewrite H1. simpl. eauto.
  Qed.
End PComplete.
