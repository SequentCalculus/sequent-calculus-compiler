(* C16: the parser model reads back the token stream of every parser-shaped tree.
     parse (T_prog p) = Some p          (roundtrip_tokens)
   Induction over parser-shaped trees ([wf_ind], also used by the other formatter proofs), one lemma per
   precedence level of the grammar; fuel: 6 * size suffices at each level. *)
From Coq Require Import List ZArith NArith String Ascii Bool Lia.
From SCC Require Import Base.Sexp Lang.SynUtil Lang.FunSyn Model.Printer Model.Parser Model.FmtClass Proof.ParseFuel Proof.ParseStable Proof.FmtDefs Proof.FmtWf.
Import ListNotations.
Open Scope string_scope.

Lemma sym_eqb_refl y : sym_eqb y y = true.
Proof. destruct y as [| | | | | | | | | | | |[]| | | | |]; reflexivity. Qed.

Definition head_is (y : sym) (ts : list token) : bool :=
  match ts with TSym z :: _ => sym_eqb y z | _ => false end.
Lemma expect_hit y r : expect y (TSym y :: r) = Some r.
Proof. unfold expect. now rewrite sym_eqb_refl. Qed.
Lemma expect_miss y ts : head_is y ts = false -> expect y ts = None.
Proof. destruct ts as [|[] ?]; simpl; try reflexivity. intros ->. reflexivity. Qed.

Lemma in_list_sum {X} (f : X -> nat) x l : In x l -> f x <= list_sum (map f l).
Proof. induction l; simpl; intros []; subst; try lia. specialize (IHl H). lia. Qed.
Lemma length_le_sum {X} (f : X -> nat) l : (forall x, 1 <= f x) -> List.length l <= list_sum (map f l).
Proof. intros H. induction l; simpl; auto. specialize (H a). lia. Qed.
Lemma tysz_pos t : 1 <= tysz t.
Proof. destruct t; simpl; lia. Qed.
Lemma tsz_pos t : 1 <= tsz t.
Proof. destruct t; simpl; lia. Qed.
Lemma csz_pos c : 1 <= csz c.
Proof. destruct c; simpl; lia. Qed.
(* size equations (cbn would expose the inner fix and confuse lia) *)
Lemma tysz_decl n l : tysz (FDecl n l) = S (list_sum (map tysz l)).
Proof. reflexivity. Qed.

(* The loop reads the items of a printed list when: a comma is not the closing bracket, no item starts with the
   closing bracket (else the loop would stop in front of it), and each item is read back when a comma or the closing
   bracket follows it. *)
Lemma comma_loop_ok {X} (item : list token -> pr X) (F : X -> tcont) (close : sym) (xs : list X) :
  sym_eqb SComma close = false ->
  (forall x r, In x xs -> head_is close (F x r) = false) ->
  (forall x r, In x xs -> head_is SComma r = true \/ head_is close r = true -> item (F x r) = Some (x, r)) ->
  forall m rest, List.length xs < m ->
    comma_loop item close m (commas (map F xs) (TSym close :: rest)) = Some (xs, rest).
Proof.
  intros Hc Hhead Hitem. induction xs as [|x xs IH]; intros m rest Hm.
  - destruct m; [simpl in Hm; lia|]. simpl. now rewrite sym_eqb_refl.
  - destruct m; [simpl in Hm; lia|]. simpl in Hm.
    assert (IH' := IH (fun y r H => Hhead y r (or_intror H)) (fun y r H => Hitem y r (or_intror H))).
    destruct xs as [|y ys].
    + cbn [map commas comma_loop].
      rewrite (expect_miss close) by (apply Hhead; now left).
      rewrite Hitem; [| now left | right; simpl; apply sym_eqb_refl]. cbn [obind].
      rewrite (expect_miss SComma) by (simpl; exact Hc). rewrite expect_hit. reflexivity.
    + change (commas (map F (x :: y :: ys)) (TSym close :: rest))
        with (F x (TSym SComma :: commas (map F (y :: ys)) (TSym close :: rest))).
      cbn [comma_loop].
      rewrite (expect_miss close) by (apply Hhead; now left).
      rewrite Hitem; [| now left | left; reflexivity]. cbn [obind].
      rewrite expect_hit. rewrite IH' by lia. reflexivity.
Qed.

(* an optional bracketed list: parser [p] reads [l item , .. , item r] or nothing *)
Lemma opt_list_ok {X} (p : list token -> pr (list X)) (item : list token -> pr X) (F : X -> tcont) (l r : sym) m xs rest :
  (forall ts, p (TSym l :: ts) = comma_loop item r m ts) ->
  (forall ts, head_is l ts = false -> p ts = Some ([], ts)) ->
  head_is l rest = false ->
  comma_loop item r m (commas (map F xs) (TSym r :: rest)) = Some (xs, rest) ->
  p (opt_bracketed l r (map F xs) rest) = Some (xs, rest).
Proof.
  intros Hl Hno Hrest Hloop. destruct xs as [|x xs']; [exact (Hno rest Hrest)|].
  change (opt_bracketed l r (map F (x :: xs')) rest) with (TSym l :: commas (map F (x :: xs')) (TSym r :: rest)).
  now rewrite Hl.
Qed.
Ltac no_bracket :=
  let ts := fresh "ts" in let H := fresh "H" in
  let y := fresh "y" in
  intros ts H; destruct ts as [|[y| | | | | | |] ?]; try reflexivity; simpl in H; destruct y; try reflexivity; discriminate.

Lemma Tk_ty_head t k : head_is SRBrack (Tk_ty t k) = false /\ head_is SRPar (Tk_ty t k) = false
                       /\ head_is SRBrace (Tk_ty t k) = false.
Proof. destruct t; simpl; auto. Qed.

Lemma comma_or_close_not_lbrack close r :
  sym_eqb close SLBrack = false -> head_is SComma r = true \/ head_is close r = true -> head_is SLBrack r = false.
Proof.
  intros Hc Hr. destruct r as [|[] ?]; try reflexivity. simpl in *.
  destruct y; try reflexivity. destruct Hr as [Hr|Hr]; [discriminate|]. now rewrite Hr in Hc.
Qed.
Lemma ty_list_ok n m args rest :
  (forall x r, In x args -> head_is SLBrack r = false -> p_ty n (Tk_ty x r) = Some (x, r)) -> List.length args < m ->
  comma_loop (p_ty n) SRBrack m (commas (map Tk_ty args) (TSym SRBrack :: rest)) = Some (args, rest).
Proof.
  intros H Hm. apply (comma_loop_ok (p_ty n) Tk_ty SRBrack args); [reflexivity | | | exact Hm].
  - intros x r _. apply Tk_ty_head.
  - intros x r Hin Hr. apply H; [exact Hin|]. eapply comma_or_close_not_lbrack; [|exact Hr]. reflexivity.
Qed.
Lemma p_ty_ok : forall n t rest, wf_ty t = true -> tysz t < n -> head_is SLBrack rest = false ->
  p_ty n (Tk_ty t rest) = Some (t, rest).
Proof.
  induction n as [|n IH]; intros t rest Hwf Hn Hrest.
  - pose proof (tysz_pos t). lia.
  - destruct t as [|s args]; [reflexivity|].
    cbn [wf_ty] in Hwf. apply andb_prop in Hwf. destruct Hwf as [_ Hargs].
    rewrite forallb_forall in Hargs. rewrite tysz_decl in Hn.
    destruct args as [|a args'].
    + cbn [Tk_ty map opt_bracketed]. destruct rest as [|[] rest']; try reflexivity.
      simpl in Hrest. destruct y; try reflexivity. discriminate.
    + remember (a :: args') as args eqn:E.
      assert (Tk_ty (FDecl s args) rest = TUpper s :: TSym SLBrack :: commas (map Tk_ty args) (TSym SRBrack :: rest))
        as -> by (subst args; reflexivity).
      cbn [p_ty]. rewrite (ty_list_ok n n args rest); [reflexivity | |].
      * intros x r Hin Hr. apply IH; [now apply Hargs | | exact Hr]. pose proof (in_list_sum tysz x args Hin). lia.
      * pose proof (length_le_sum tysz args tysz_pos). lia.
Qed.

Lemma p_opttyargs_ok n l rest :
  forallb wf_ty l = true -> list_sum (map tysz l) < n -> head_is SLBrack rest = false ->
  p_opttyargs n (Tk_tyargs l rest) = Some (l, rest).
Proof.
  intros Hwf Hn Hrest. rewrite forallb_forall in Hwf.
  apply (opt_list_ok (p_opttyargs n) (p_ty n) Tk_ty SLBrack SRBrack n); [reflexivity | no_bracket | exact Hrest |].
  apply ty_list_ok.
  - intros x r Hin Hr. apply p_ty_ok; [now apply Hwf | | exact Hr]. pose proof (in_list_sum tysz x l Hin). lia.
  - pose proof (length_le_sum tysz l tysz_pos). lia.
Qed.

Lemma p_names_ok n (l : fnamectx) rest :
  List.length l < n -> head_is SLPar rest = false -> p_optnames n (Tk_names l rest) = Some (l, rest).
Proof.
  intros Hn Hrest. apply (opt_list_ok (p_optnames n) p_lower Tk_lower SLPar SRPar n); [reflexivity | no_bracket | exact Hrest |].
  apply (comma_loop_ok p_lower Tk_lower SRPar l); [reflexivity | reflexivity | reflexivity | exact Hn].
Qed.
Lemma p_typarams_ok n (l : fnamectx) rest :
  List.length l < n -> head_is SLBrack rest = false -> p_opttypectx n (Tk_typarams l rest) = Some (l, rest).
Proof.
  intros Hn Hrest. apply (opt_list_ok (p_opttypectx n) p_upper Tk_upper SLBrack SRBrack n); [reflexivity | no_bracket | exact Hrest |].
  apply (comma_loop_ok p_upper Tk_upper SRBrack l); [reflexivity | reflexivity | reflexivity | exact Hn].
Qed.

Definition ctxsz (g : fctx) : nat := list_sum (map (fun b => S (tysz (fbty b))) g).
Lemma p_binding_ok n b r :
  wf_binding b = true -> tysz (fbty b) < n -> head_is SLBrack r = false ->
  p_binding n (Tk_binding b r) = Some (b, r).
Proof.
  intros Hwf Hn Hr. unfold wf_binding in Hwf. apply andb_prop in Hwf. destruct Hwf as [_ Hty].
  destruct b as [v chi ty]. unfold Tk_binding. simpl in *.
  destruct chi; cbn [p_binding]; rewrite p_ty_ok by assumption; reflexivity.
Qed.
Lemma p_ctx_list_ok n g rest :
  wf_ctx g = true -> ctxsz g < n ->
  comma_loop (p_binding n) SRPar n (commas (map Tk_binding g) (TSym SRPar :: rest)) = Some (g, rest).
Proof.
  intros Hwf Hn. unfold wf_ctx in Hwf. rewrite forallb_forall in Hwf.
  apply (comma_loop_ok (p_binding n) Tk_binding SRPar g); [reflexivity | | | ].
  - intros x r _. reflexivity.
  - intros x r Hin Hr. apply p_binding_ok; [now apply Hwf | | ].
    + pose proof (in_list_sum (fun b => S (tysz (fbty b))) x g Hin). unfold ctxsz in Hn. cbv beta in H. lia.
    + eapply comma_or_close_not_lbrack; [|exact Hr]. reflexivity.
  - unfold ctxsz in Hn. pose proof (length_le_sum (fun b => S (tysz (fbty b))) g).
    assert (forall x : fbinding, 1 <= S (tysz (fbty x))) by (intros; lia). specialize (H H0). lia.
Qed.
Lemma p_ctx_ok n g rest :                                     (* def f( .. ) *)
  wf_ctx g = true -> ctxsz g < n -> p_optctx n (Tk_ctx g rest) = Some (g, rest).
Proof. intros. unfold Tk_ctx, bracketed. cbn [p_optctx]. now apply p_ctx_list_ok. Qed.
Lemma p_sigargs_ok n g rest :                                 (* Ctor / Dtor signatures: optional *)
  wf_ctx g = true -> ctxsz g < n -> head_is SLPar rest = false -> p_optctx n (Tk_sigargs g rest) = Some (g, rest).
Proof.
  intros Hwf Hn Hrest.
  apply (opt_list_ok (p_optctx n) (p_binding n) Tk_binding SLPar SRPar n); [reflexivity | no_bracket | exact Hrest |].
  now apply p_ctx_list_ok.
Qed.

Lemma tsz_op a o b : tsz (FOp a o b) = S (tsz a + tsz b). Proof. reflexivity. Qed.
Lemma tsz_if s a b th el ty :
  tsz (FIfC s a b th el ty) = S (tsz a + match b with Some b' => tsz b' | None => 0 end + tsz th + tsz el).
Proof. reflexivity. Qed.
Lemma tsz_print nl a n ty : tsz (FPrint nl a n ty) = S (tsz a + tsz n). Proof. reflexivity. Qed.
Lemma tsz_let v vty b t ty : tsz (FLet v vty b t ty) = S (tysz vty + tsz b + tsz t). Proof. reflexivity. Qed.
Lemma tsz_call f args r : tsz (FCall f args r) = S (list_sum (map tsz args)). Proof. reflexivity. Qed.
Lemma tsz_ctor f args r : tsz (FCtor f args r) = S (list_sum (map tsz args)). Proof. reflexivity. Qed.
Lemma tsz_dtor s x targs args ty :
  tsz (FDtor s x targs args ty) = S (tsz s + list_sum (map tysz targs) + list_sum (map tsz args)).
Proof. reflexivity. Qed.
Lemma tsz_case s targs cls ty :
  tsz (FCase s targs cls ty) = S (tsz s + list_sum (map tysz targs) + list_sum (map csz cls)).
Proof. reflexivity. Qed.
Lemma tsz_new cls ty : tsz (FNew cls ty) = S (list_sum (map csz cls)). Proof. reflexivity. Qed.
Lemma tsz_label l t ty : tsz (FLabel l t ty) = S (tsz t). Proof. reflexivity. Qed.
Lemma tsz_goto l t ty : tsz (FGoto l t ty) = S (tsz t). Proof. reflexivity. Qed.
Lemma tsz_exit a ty : tsz (FExit a ty) = S (tsz a). Proof. reflexivity. Qed.
Lemma tsz_paren t : tsz (FParen t) = S (tsz t). Proof. reflexivity. Qed.
Lemma csz_clause p x names g body : csz (FClause p x names g body) = S (List.length names + tsz body).
Proof. reflexivity. Qed.

(* the first token of a printed term *)
Fixpoint thead (t : fterm) : token :=
  match t with
  | FVar v _ _ => TLower v
  | FLit z => if (z <? 0)%Z then TSym SMinus else TNum (Z.to_N z)
  | FOp a _ _ => thead a
  | FIfC _ _ _ _ _ _ => TKw KIf
  | FPrint nl _ _ _ => TKw (if nl then KPrintln else KPrint)
  | FLet _ _ _ _ _ => TKw KLet
  | FCall f _ _ => TLower f
  | FCtor x _ _ => TUpper x
  | FDtor s _ _ _ _ => thead s
  | FCase s _ _ _ => thead s
  | FNew _ _ => TKw KNew
  | FLabel _ _ _ => TKw KLabel
  | FGoto _ _ _ => TKw KGoto
  | FExit _ _ => TKw KExit
  | FParen _ => TSym SLPar
  end.
Lemma Tk_thead t : forall k, exists tl, Tk_term t k = thead t :: tl.
Proof.
  induction t; intros k; cbn [Tk_term thead]; eauto.
  - unfold Tk_lit. destruct (n <? 0)%Z; eauto.
Qed.
Definition t1head (h : token) : bool :=
  match h with TLower _ | TNum _ | TSym SMinus | TSym SLPar => true | _ => false end.
Definition t2head (h : token) : bool :=
  t1head h || match h with TUpper _ | TKw KNew => true | _ => false end.
Definition t3head (h : token) : bool :=
  t2head h || match h with TKw (KIf | KLabel | KGoto | KExit | KLet) => true | _ => false end.
Definition t4head (h : token) : bool :=
  t3head h || match h with TKw (KPrint | KPrintln) => true | _ => false end.
Lemma thead1 t : level t <= 1 -> t1head (thead t) = true.
Proof. destruct t; cbn [level thead]; intros; try lia; try reflexivity. destruct (n <? 0)%Z; reflexivity. Qed.
Lemma thead2 t : wf t = true -> level t <= 2 -> t2head (thead t) = true.
Proof.
  induction t; cbn [level thead]; intros Hwf Hl; try lia; try reflexivity.
  - destruct (n <? 0)%Z; reflexivity.
  - apply wf_dtor_inv in Hwf. destruct Hwf as (? & ? & _). auto.
  - apply wf_case_inv in Hwf. destruct Hwf as (? & ? & _). auto.
Qed.
Lemma t1_t2 h : t1head h = true -> t2head h = true.
Proof. unfold t2head. intros ->. reflexivity. Qed.
Lemma t2_t3 h : t2head h = true -> t3head h = true.
Proof. unfold t3head. intros ->. reflexivity. Qed.
Lemma thead3 t : wf t = true -> level t <= 3 -> t3head (thead t) = true.
Proof.
  intros Hwf Hl. destruct (Nat.le_gt_cases (level t) 2) as [H2|H2].
  - apply t2_t3. now apply thead2.
  - destruct t; cbn [level] in *; try lia; try reflexivity.
    (* FOp *)
    cbn [wf] in Hwf. rewrite !andb_true_iff in Hwf. destruct Hwf as (((A & B) & C) & D).
    apply Nat.leb_le in C. cbn [thead]. apply t2_t3, t1_t2, thead1. assumption.
Qed.
Lemma thead4 t : wf t = true -> t4head (thead t) = true.
Proof.
  intros Hwf. destruct (Nat.le_gt_cases (level t) 3) as [H|H].
  - unfold t4head. rewrite thead3; auto.
  - destruct t; cbn [level] in *; try lia. cbn [thead]. destruct nl; reflexivity.
Qed.

Lemma p_term_print n nl r :
  p_term (S n) (TKw (if nl : bool then KPrintln else KPrint) :: TSym SLPar :: r) =
  (do (a, r1) <- p_term n r; do r2 <- expect SRPar r1; do r3 <- expect SSemi r2;
   do (t, r4) <- p_term n r3; Some (FPrint nl a t None, r4)).
Proof. rewrite p_term_unfold. destruct nl; reflexivity. Qed.
Lemma p_term_other n h tl : t3head h = true -> p_term (S n) (h :: tl) = p_term3 n (h :: tl).
Proof. rewrite p_term_unfold. destruct h as [ | | | | | | |[]]; try discriminate; reflexivity. Qed.

Definition if_tail (n : nat) (a : fterm) (r1 : list token) : pr fterm :=
  match r1 with
  | TSym (SCmp c) :: r2 =>
      do (b, r3) <- p_term n r2;
      do (th, r4) <- p_block n r3;
      match r4 with
      | TKw KElse :: r5 => do (el, r6) <- p_block n r5; Some (FIfC c a (Some b) th el None, r6)
      | _ => None end
  | TCmpZ c :: r2 =>
      do (th, r4) <- p_block n r2;
      match r4 with
      | TKw KElse :: r5 => do (el, r6) <- p_block n r5; Some (FIfC c a None th el None, r6)
      | _ => None end
  | _ => None
  end.
Lemma p_term3_if n h tl : t4head h = true ->
  p_term3 (S n) (TKw KIf :: h :: tl) = (do (a, r1) <- p_term n (h :: tl); if_tail n a r1).
Proof. rewrite p_term3_unfold. destruct h; try discriminate; reflexivity. Qed.
Lemma p_term3_label n l r :
  p_term3 (S n) (TKw KLabel :: TLower l :: r) = (do (t, r1) <- p_block n r; Some (FLabel l t None, r1)).
Proof. rewrite p_term3_unfold. reflexivity. Qed.
Lemma p_term3_goto n l r :
  p_term3 (S n) (TKw KGoto :: TLower l :: TSym SLPar :: r) =
  (do (t, r1) <- p_term n r; do r2 <- expect SRPar r1; Some (FGoto l t None, r2)).
Proof. rewrite p_term3_unfold. reflexivity. Qed.
Lemma p_term3_exit n r :
  p_term3 (S n) (TKw KExit :: r) = (do (t, r1) <- p_term n r; Some (FExit t None, r1)).
Proof. rewrite p_term3_unfold. reflexivity. Qed.
Lemma p_term3_let n v r :
  p_term3 (S n) (TKw KLet :: TLower v :: TSym SColon :: r) =
  (do (ty, r1) <- p_ty n r; do r2 <- expect SAssign r1;
   do (b, r3) <- p_term3 n r2; do r4 <- expect SSemi r3;
   do (t, r5) <- p_term n r4; Some (FLet v ty b t None, r5)).
Proof. rewrite p_term3_unfold. reflexivity. Qed.
Definition op_tail (n : nat) (eb : fterm * bool) (r : list token) : pr fterm :=
  let (e, is1) := eb in
  match r with
  | TSym y :: r1 =>
      match binop_of y with
      | Some o => if is1 then do (b, r2) <- p_term1 n r1; Some (FOp e o b, r2) else None
      | None => Some (e, r)
      end
  | _ => Some (e, r)
  end.
Lemma p_term3_other n h tl : t2head h = true ->
  p_term3 (S n) (h :: tl) = (do (eb, r) <- p_term2 n (h :: tl); op_tail n eb r).
Proof. rewrite p_term3_unfold. destruct h as [[]| | | | | | |[]]; try discriminate; reflexivity. Qed.
Lemma p_block_S n r :
  p_block (S n) (TSym SLBrace :: r) = (do (t, r1) <- p_term n r; do r2 <- expect SRBrace r1; Some (t, r2)).
Proof. rewrite p_block_unfold. reflexivity. Qed.
Lemma p_term2_new n r :
  p_term2 (S n) (TKw KNew :: TSym SLBrace :: r) =
  (do (cls, r1) <- comma_loop (p_clause n FCodata) SRBrace n r; p_postfix n (FNew cls None) false r1).
Proof. rewrite p_term2_unfold. reflexivity. Qed.
(* Ctor and destructor calls end in an optional argument list *)
Definition optargs_tail {X} (n : nat) (K : list fterm -> list token -> pr X) (r1 : list token) : pr X :=
  match r1 with
  | TSym SLPar :: r2 => do (args, r3) <- comma_loop (p_term n) SRPar n r2; K args r3
  | _ => K [] r1
  end.
Lemma p_term2_ctor n x r :
  p_term2 (S n) (TUpper x :: r) = optargs_tail n (fun args r' => p_postfix n (FCtor x args None) false r') r.
Proof. rewrite p_term2_unfold. reflexivity. Qed.
Lemma p_term2_other n h tl : t1head h = true ->
  p_term2 (S n) (h :: tl) = (do (e, r) <- p_term1 n (h :: tl); p_postfix n e true r).
Proof. rewrite p_term2_unfold. destruct h as [[]| | | | | | |]; try discriminate; reflexivity. Qed.
Lemma p_term1_num n k r :
  p_term1 (S n) (TNum k :: r) = if lit_ok k then Some (FLit (Z.of_N k), r) else None.
Proof. rewrite p_term1_unfold. reflexivity. Qed.
Lemma p_term1_neg n k r :
  p_term1 (S n) (TSym SMinus :: TNum k :: r) = if lit_ok k then Some (FLit (- Z.of_N k), r) else None.
Proof. rewrite p_term1_unfold. reflexivity. Qed.
Lemma p_term1_call n v r :
  p_term1 (S n) (TLower v :: TSym SLPar :: r) =
  (do (args, r1) <- comma_loop (p_term n) SRPar n r; Some (FCall v args None, r1)).
Proof. rewrite p_term1_unfold. reflexivity. Qed.
Lemma p_term1_var n v r : head_is SLPar r = false ->
  p_term1 (S n) (TLower v :: r) = Some (FVar v None None, r).
Proof. rewrite p_term1_unfold. destruct r as [|[[]| | | | | | |] ?]; try discriminate; reflexivity. Qed.
Lemma p_term1_paren n r :
  p_term1 (S n) (TSym SLPar :: r) = (do (t, r1) <- p_term n r; do r2 <- expect SRPar r1; Some (FParen t, r2)).
Proof. rewrite p_term1_unfold. reflexivity. Qed.
Lemma p_postfix_dtor n e is1 x r :
  p_postfix (S n) e is1 (TSym SDot :: TLower x :: r) =
  (do (targs, r1) <- p_opttyargs n r;
   optargs_tail n (fun args r' => p_postfix n (FDtor e x targs args None) false r') r1).
Proof. rewrite p_postfix_unfold. reflexivity. Qed.
Lemma p_postfix_case n e is1 r :
  p_postfix (S n) e is1 (TSym SDot :: TKw KCase :: r) =
  (do (targs, r1) <- p_opttyargs n r; do r2 <- expect SLBrace r1;
   do (cls, r3) <- comma_loop (p_clause n FData) SRBrace n r2; p_postfix n (FCase e targs cls None) false r3).
Proof. rewrite p_postfix_unfold. reflexivity. Qed.
Lemma p_postfix_stop n e is1 r : head_is SDot r = false -> p_postfix (S n) e is1 r = Some ((e, is1), r).
Proof. rewrite p_postfix_unfold. destruct r as [|[[]| | | | | | |] ?]; try discriminate; reflexivity. Qed.
Lemma p_clause_S n pol ts :
  p_clause (S n) pol ts =
  (do (x, r) <- match pol with FData => p_upper ts | FCodata => p_lower ts end;
   do (names, r1) <- p_optnames n r; do r2 <- expect SArrow r1;
   do (body, r3) <- p_term n r2; Some (FClause pol x names [] body, r3)).
Proof. exact (p_clause_unfold n pol ts). Qed.

(* What may follow a term: the tokens after which no production of Term continues it - closing brackets, comma and
   semicolon, and after the first operand of an `if` a comparison (r"cmp\s*0" included) or the brace of the block. *)
Definition stop_tok (t : token) : bool :=
  match t with
  | TSym (SRPar | SRBrace | SComma | SSemi | SCmp _ | SLBrace) | TCmpZ _ => true
  | _ => false
  end.
Definition stops (ts : list token) : bool := match ts with [] => true | t :: _ => stop_tok t end.
Lemma stops_not y r : stop_tok (TSym y) = false -> stops r = true -> head_is y r = false.
Proof.
  intros Hy. destruct r as [|[z| | | | | | |] ?]; try reflexivity; try discriminate.
  cbn [stops head_is]. intros Hz. destruct y, z; try reflexivity; discriminate.
Qed.
Lemma stops_sep close r : (close = SRPar \/ close = SRBrace) ->
  head_is SComma r = true \/ head_is close r = true -> stops r = true.
Proof.
  intros Hc [H|H]; destruct r as [|[[]| | | | | | |] ?]; try discriminate; try reflexivity;
    destruct Hc; subst; discriminate.
Qed.
Lemma op_tail_stops n e b r : stops r = true -> op_tail n (e, b) r = Some (e, r).
Proof. destruct r as [|[[]| | | | | | |] ?]; try discriminate; reflexivity. Qed.
Lemma binop_of_sym o : binop_of (sym_of_binop o) = Some o.
Proof. destruct o; reflexivity. Qed.

Definition is1 (t : fterm) : bool := (level t <=? 1)%nat.
Fixpoint chain (t : fterm) : nat :=
  match t with FDtor s _ _ _ _ | FCase s _ _ _ => S (chain s) | _ => 0 end.
Lemma chain_lt t : chain t < tsz t.
Proof.
  induction t; cbn [chain]; try (pose proof (tsz_pos t); lia); try (cbn; lia).
Qed.
Lemma chain_level1 t : level t <= 1 -> chain t = 0.
Proof. destruct t; cbn; intros; try lia; reflexivity. Qed.

(* The four statements, one per grammar level.  Fuel: 6 per node is enough (not tight): up to four steps descend
   through the levels Term .. Term1, and up to two more lead from a node into an argument or a clause body (the step of
   the node's own function, then p_clause).
   C2: a Term2 is a Term1 followed by destructor calls and cases, which are left recursive in the grammar and read by
   p_postfix; [chain t] of them are already consumed when the stated call of p_postfix is reached. *)
Definition C1 (t : fterm) : Prop := forall n rest,
  6 * tsz t <= n -> level t <= 1 -> head_is SLPar rest = false ->
  p_term1 n (Tk_term t rest) = Some (t, rest).
Definition C2 (t : fterm) : Prop := forall n rest,
  6 * tsz t + 1 <= n -> level t <= 2 -> head_is SLPar rest = false -> head_is SLBrack rest = false ->
  p_term2 n (Tk_term t rest) = p_postfix (n - 1 - chain t) t (is1 t) rest.
Definition C3 (t : fterm) : Prop := forall n rest,
  6 * tsz t + 2 <= n -> level t <= 3 -> stops rest = true ->
  p_term3 n (Tk_term t rest) = Some (t, rest).
Definition C4 (t : fterm) : Prop := forall n rest,
  6 * tsz t + 3 <= n -> stops rest = true ->
  p_term n (Tk_term t rest) = Some (t, rest).
Definition Clevels (t : fterm) : Prop := C1 t /\ C2 t /\ C3 t /\ C4 t.

Lemma lift12 t : level t <= 1 -> C1 t -> C2 t.
Proof.
  intros L1 H1 n rest Hn Hl Hp Hb.
  destruct n as [|n]; [lia|].
  destruct (Tk_thead t rest) as [tl E]. rewrite E.
  rewrite p_term2_other by (now apply thead1). rewrite <- E.
  rewrite H1 by (auto; lia). cbn [obind].
  rewrite chain_level1 by assumption. unfold is1. apply Nat.leb_le in L1. rewrite L1.
  f_equal. lia.
Qed.
Lemma lift23 t : wf t = true -> level t <= 2 -> C2 t -> C3 t.
Proof.
  intros Hwf L2 H2 n rest Hn Hl Hs.
  destruct n as [|n]; [lia|].
  destruct (Tk_thead t rest) as [tl E]. rewrite E.
  rewrite p_term3_other by (now apply thead2). rewrite <- E.
  rewrite H2; [| lia | assumption | now apply stops_not | now apply stops_not].
  pose proof (chain_lt t).
  destruct (n - 1 - chain t) as [|m] eqn:Em; [lia|].
  rewrite p_postfix_stop by (now apply stops_not). cbn [obind].
  now apply op_tail_stops.
Qed.
Lemma lift34 t : wf t = true -> level t <= 3 -> C3 t -> C4 t.
Proof.
  intros Hwf L3 H3 n rest Hn Hs.
  destruct n as [|n]; [lia|].
  destruct (Tk_thead t rest) as [tl E]. rewrite E.
  rewrite p_term_other by (now apply thead3). rewrite <- E.
  apply H3; auto. lia.
Qed.

(* the first token of a term is never a closing bracket, a comma, or a zero-comparison terminal *)
Definition starter (h : token) : bool :=
  match h with
  | TSym (SMinus | SLPar) | TLower _ | TUpper _ | TNum _ | TKw _ => true
  | _ => false
  end.
Lemma thead_starter t : starter (thead t) = true.
Proof. induction t; cbn [thead]; auto. destruct (n <? 0)%Z; reflexivity. Qed.
Lemma Tk_term_not_close t r y : (y = SRPar \/ y = SRBrace) -> head_is y (Tk_term t r) = false.
Proof.
  intros Hy. destruct (Tk_thead t r) as [tl ->]. pose proof (thead_starter t) as H.
  destruct (thead t) as [[]| | | | | | |]; try discriminate; try reflexivity; destruct Hy; subst; reflexivity.
Qed.
Lemma starter_t4 t : wf t = true -> t4head (thead t) = true.
Proof. apply thead4. Qed.

(* argument lists: ( t1 , .. , tn ) *)
Lemma args_ok n args rest :
  (forall a, In a args -> C4 a) -> 6 * list_sum (map tsz args) + 4 <= n ->
  comma_loop (p_term n) SRPar n (commas (map Tk_term args) (TSym SRPar :: rest)) = Some (args, rest).
Proof.
  intros HC Hn.
  apply (comma_loop_ok (p_term n) Tk_term SRPar args); [reflexivity | | | ].
  - intros x r _. apply Tk_term_not_close. now left.
  - intros x r Hin Hr. apply (HC x Hin).
    + pose proof (in_list_sum tsz x args Hin). lia.
    + eapply stops_sep; [|exact Hr]. now left.
  - pose proof (length_le_sum tsz args tsz_pos). lia.
Qed.

Lemma optargs_tail_ok {X} n (K : list fterm -> list token -> pr X) args rest :
  (forall a, In a args -> C4 a) -> 6 * list_sum (map tsz args) + 4 <= n -> head_is SLPar rest = false ->
  optargs_tail n K (opt_bracketed SLPar SRPar (map Tk_term args) rest) = K args rest.
Proof.
  intros HC Hn Hr. destruct args as [|a args'].
  - cbn [map opt_bracketed]. destruct rest as [|[[]| | | | | | |] ?]; try discriminate; reflexivity.
  - remember (a :: args') as args eqn:E.
    assert (opt_bracketed SLPar SRPar (map Tk_term args) rest
            = TSym SLPar :: commas (map Tk_term args) (TSym SRPar :: rest)) as -> by (subst args; reflexivity).
    cbn [optargs_tail]. rewrite args_ok by assumption. reflexivity.
Qed.

Lemma C1_var v : C1 (FVar v None None).
Proof.
  intros n rest Hn _ Hp. destruct n as [|n]; [cbn in Hn; lia|].
  cbn [Tk_term]. now apply p_term1_var.
Qed.
Lemma C1_lit z : lit_in_range z = true -> C1 (FLit z).
Proof.
  intros Hz n rest Hn _ Hp. destruct n as [|n]; [cbn in Hn; lia|].
  unfold lit_in_range in Hz. apply Z.leb_le in Hz.
  cbn [Tk_term]. unfold Tk_lit. destruct (z <? 0)%Z eqn:Ez.
  - apply Z.ltb_lt in Ez. rewrite p_term1_neg.
    assert (lit_ok (Z.to_N (- z)) = true) as -> by (unfold lit_ok; apply N.leb_le; lia).
    repeat f_equal. lia.
  - apply Z.ltb_ge in Ez. rewrite p_term1_num.
    assert (lit_ok (Z.to_N z) = true) as -> by (unfold lit_ok; apply N.leb_le; lia).
    repeat f_equal. lia.
Qed.
Lemma C1_call f args : (forall a, In a args -> C4 a) -> C1 (FCall f args None).
Proof.
  intros HC n rest Hn _ Hp. destruct n as [|n]; [cbn in Hn; lia|]. rewrite tsz_call in Hn.
  cbn [Tk_term]. unfold bracketed. rewrite p_term1_call.
  rewrite args_ok by (auto; lia). reflexivity.
Qed.
Lemma C1_paren u : C4 u -> C1 (FParen u).
Proof.
  intros HC n rest Hn _ Hp. destruct n as [|n]; [cbn in Hn; lia|]. rewrite tsz_paren in Hn.
  cbn [Tk_term]. rewrite p_term1_paren. rewrite HC by (try reflexivity; lia). cbn [obind].
  rewrite expect_hit. reflexivity.
Qed.

Lemma C2_ctor x args : (forall a, In a args -> C4 a) -> C2 (FCtor x args None).
Proof.
  intros HC n rest Hn _ Hp Hb. destruct n as [|n]; [lia|]. rewrite tsz_ctor in Hn.
  cbn [Tk_term chain]. replace (S n - 1 - 0) with n by lia. unfold is1; cbn [level Nat.leb].
  rewrite p_term2_ctor. apply (optargs_tail_ok n (fun args r' => p_postfix n (FCtor x args None) false r')); auto; lia.
Qed.

Lemma clause_ok n pol c rest :
  wf_clause pol c = true -> (forall p x ns g body, c = FClause p x ns g body -> C4 body) ->
  6 * csz c <= n -> stops rest = true ->
  p_clause n pol (Tk_clause c rest) = Some (c, rest).
Proof.
  intros Hwf HC Hn Hs. destruct c as [p x names g body]. specialize (HC _ _ _ _ _ eq_refl).
  rewrite csz_clause in Hn. destruct n as [|n]; [lia|].
  cbn [wf_clause] in Hwf. rewrite !andb_true_iff in Hwf. destruct Hwf as ((((Hp & Hx) & Hns) & Hg) & Hb).
  destruct g; [|discriminate].
  assert (p = pol) as -> by (destruct p, pol; try discriminate; reflexivity).
  rewrite p_clause_S. cbn [Tk_clause].
  destruct pol; cbn [p_upper p_lower obind];
    (rewrite p_names_ok by (try reflexivity; lia)); cbn [obind]; rewrite expect_hit; cbn [obind];
    (rewrite HC by (auto; lia)); reflexivity.
Qed.
Lemma clauses_ok n pol cls rest :
  forallb (wf_clause pol) cls = true ->
  (forall c, In c cls -> forall p x ns g body, c = FClause p x ns g body -> C4 body) ->
  6 * list_sum (map csz cls) + 1 <= n ->
  comma_loop (p_clause n pol) SRBrace n (commas (map Tk_clause cls) (TSym SRBrace :: rest)) = Some (cls, rest).
Proof.
  intros Hwf HC Hn. rewrite forallb_forall in Hwf.
  apply (comma_loop_ok (p_clause n pol) Tk_clause SRBrace cls); [reflexivity | | | ].
  - intros [p x ns g b] r _. cbn [Tk_clause]. destruct p; reflexivity.
  - intros c r Hin Hr. apply clause_ok.
    + now apply Hwf.
    + now apply HC.
    + pose proof (in_list_sum csz c cls Hin). lia.
    + eapply stops_sep; [|exact Hr]. now right.
  - pose proof (length_le_sum csz cls csz_pos). lia.
Qed.

Lemma C2_new cls :
  forallb (wf_clause FCodata) cls = true ->
  (forall c, In c cls -> forall p x ns g body, c = FClause p x ns g body -> C4 body) ->
  C2 (FNew cls None).
Proof.
  intros Hwf HC n rest Hn _ Hp Hb. destruct n as [|n]; [lia|]. rewrite tsz_new in Hn.
  cbn [Tk_term chain]. replace (S n - 1 - 0) with n by lia. unfold is1; cbn [level Nat.leb].
  unfold bracketed. rewrite p_term2_new. rewrite clauses_ok by (auto; lia). reflexivity.
Qed.

Lemma C2_dtor s x targs args :
  level s <= 2 -> C2 s -> forallb wf_ty targs = true -> (forall a, In a args -> C4 a) ->
  C2 (FDtor s x targs args None).
Proof.
  intros Ls Hs Hty HC n rest Hn _ Hp Hb. rewrite tsz_dtor in Hn.
  cbn [Tk_term]. rewrite Hs by (auto; lia).
  pose proof (chain_lt s).
  destruct (n - 1 - chain s) as [|m] eqn:Em; [lia|].
  rewrite p_postfix_dtor.
  unfold is1. cbn [level Nat.leb chain]. replace (n - 1 - S (chain s)) with m by lia.
  rewrite p_opttyargs_ok; [| assumption | lia | destruct args; [exact Hb | reflexivity]]. cbn [obind].
  apply (optargs_tail_ok m (fun args r' => p_postfix m (FDtor s x targs args None) false r')); auto; lia.
Qed.
Lemma C2_case s targs cls :
  level s <= 2 -> C2 s -> forallb wf_ty targs = true ->
  forallb (wf_clause FData) cls = true ->
  (forall c, In c cls -> forall p x ns g body, c = FClause p x ns g body -> C4 body) ->
  C2 (FCase s targs cls None).
Proof.
  intros Ls Hs Hty Hwf HC n rest Hn _ Hp Hb. rewrite tsz_case in Hn.
  cbn [Tk_term]. rewrite Hs by (auto; lia).
  pose proof (chain_lt s).
  destruct (n - 1 - chain s) as [|m] eqn:Em; [lia|].
  rewrite p_postfix_case.
  unfold is1. cbn [level Nat.leb chain]. replace (n - 1 - S (chain s)) with m by lia.
  unfold bracketed. rewrite p_opttyargs_ok by (auto; lia). cbn [obind].
  rewrite expect_hit. cbn [obind]. rewrite clauses_ok by (auto; lia). reflexivity.
Qed.

Lemma C3_op a o b : level a <= 1 -> level b <= 1 -> C2 a -> C1 b -> C3 (FOp a o b).
Proof.
  intros La Lb Ha Hb n rest Hn _ Hs. destruct n as [|n]; [lia|]. rewrite tsz_op in Hn.
  cbn [Tk_term]. destruct (Tk_thead a (TSym (sym_of_binop o) :: Tk_term b rest)) as [tl E]. rewrite E.
  rewrite p_term3_other by (apply t1_t2; now apply thead1). rewrite <- E.
  rewrite Ha; [| lia | lia | destruct o; reflexivity | destruct o; reflexivity].
  rewrite chain_level1 by assumption.
  destruct (n - 1 - 0) as [|m] eqn:Em; [lia|].
  rewrite p_postfix_stop by (destruct o; reflexivity). cbn [obind op_tail].
  rewrite binop_of_sym. unfold is1. apply Nat.leb_le in La. rewrite La.
  rewrite Hb; [reflexivity | lia | assumption | now apply stops_not].
Qed.

Lemma block_ok n t rest : C4 t -> 6 * tsz t + 4 <= n ->
  p_block n (TSym SLBrace :: Tk_term t (TSym SRBrace :: rest)) = Some (t, rest).
Proof.
  intros HC Hn. destruct n as [|n]; [lia|]. rewrite p_block_S.
  rewrite HC by (try reflexivity; lia). cbn [obind]. rewrite expect_hit. reflexivity.
Qed.
(* the zero-left production: `if 0 cmp t { .. } else { .. }` *)
Lemma p_term3_ifz n c r :
  p_term3 (S n) (TKw KIf :: TZCmp c :: r) =
  (do (a, r1) <- p_term n r; do (th, r2) <- p_block n r1;
   match r2 with
   | TKw KElse :: r3 => do (el, r4) <- p_block n r3; Some (FIfC (flip c) a None th el None, r4)
   | _ => None end).
Proof. rewrite p_term3_unfold. reflexivity. Qed.
(* `-0` is the literal 0 *)
Lemma p_term_minus0 n r : p_term n (TSym SMinus :: TNum 0 :: r) = p_term n (TNum 0 :: r).
Proof.
  destruct n as [|n]; [reflexivity|]. rewrite !p_term_other by reflexivity.
  destruct n as [|n]; [reflexivity|]. rewrite !p_term3_other by reflexivity.
  destruct n as [|n]; [reflexivity|]. rewrite !p_term2_other by reflexivity.
  destruct n as [|n]; [reflexivity|]. rewrite p_term1_neg, p_term1_num. reflexivity.
Qed.
Lemma thead_starts_zero t : starts_zero t = true -> thead t = TNum 0.
Proof.
  induction t; cbn [starts_zero thead]; try discriminate; auto.
  destruct n; try discriminate. reflexivity.
Qed.
Lemma C3_if s a b th el :
  wf a = true -> C4 a -> match b with Some b' => C4 b' | None => True end -> C4 th -> C4 el ->
  C3 (FIfC s a b th el None).
Proof.
  intros Hwa Ha Hb Hth Hel n rest Hn _ Hs. destruct n as [|n]; [lia|]. rewrite tsz_if in Hn.
  cbn [Tk_term].
  destruct b as [b|].
  - match goal with |- p_term3 _ (TKw KIf :: Tk_term a ?k) = _ => destruct (Tk_thead a k) as [tl E]; rewrite E end.
    rewrite p_term3_if by (now apply thead4). rewrite <- E. clear E tl.
    rewrite Ha by (try reflexivity; lia). cbn [obind if_tail].
    destruct (starts_zero b) eqn:Zb.
    + (* the second operand is printed with a minus sign in front of its leading 0 *)
      match goal with |- context [p_term n (TSym SMinus :: Tk_term b ?k)] =>
        destruct (Tk_thead b k) as [tl E]; rewrite (thead_starts_zero b Zb) in E; rewrite E, p_term_minus0, <- E end.
      rewrite Hb by (try reflexivity; lia). cbn [obind].
      rewrite block_ok by (auto; lia). cbn [obind].
      rewrite block_ok by (auto; lia). reflexivity.
    + rewrite Hb by (try reflexivity; lia). cbn [obind].
      rewrite block_ok by (auto; lia). cbn [obind].
      rewrite block_ok by (auto; lia). reflexivity.
  - destruct (ends_zero a) eqn:Za.
    + (* zero on the left: the production stores the mirrored sort *)
      rewrite p_term3_ifz. rewrite Ha by (try reflexivity; lia). cbn [obind].
      rewrite block_ok by (auto; lia). cbn [obind].
      rewrite block_ok by (auto; lia). destruct s; reflexivity.
    + match goal with |- p_term3 _ (TKw KIf :: Tk_term a ?k) = _ => destruct (Tk_thead a k) as [tl E]; rewrite E end.
      rewrite p_term3_if by (now apply thead4). rewrite <- E. clear E tl.
      rewrite Ha by (try reflexivity; lia). cbn [obind if_tail].
      rewrite block_ok by (auto; lia). cbn [obind].
      rewrite block_ok by (auto; lia). reflexivity.
Qed.
Lemma C3_label l t : C4 t -> C3 (FLabel l t None).
Proof.
  intros Ht n rest Hn _ Hs. destruct n as [|n]; [lia|]. rewrite tsz_label in Hn.
  cbn [Tk_term]. rewrite p_term3_label. rewrite block_ok by (auto; lia). reflexivity.
Qed.
Lemma C3_goto l t : C4 t -> C3 (FGoto l t None).
Proof.
  intros Ht n rest Hn _ Hs. destruct n as [|n]; [lia|]. rewrite tsz_goto in Hn.
  cbn [Tk_term]. rewrite p_term3_goto. rewrite Ht by (try reflexivity; lia). cbn [obind].
  rewrite expect_hit. reflexivity.
Qed.
Lemma C3_exit a : C4 a -> C3 (FExit a None).
Proof.
  intros Ha n rest Hn _ Hs. destruct n as [|n]; [lia|]. rewrite tsz_exit in Hn.
  cbn [Tk_term]. rewrite p_term3_exit. rewrite Ha by (auto; lia). reflexivity.
Qed.
Lemma C3_let v ty b t : wf_ty ty = true -> level b <= 3 -> C3 b -> C4 t -> C3 (FLet v ty b t None).
Proof.
  intros Hty Lb Hb Ht n rest Hn _ Hs. destruct n as [|n]; [lia|]. rewrite tsz_let in Hn.
  cbn [Tk_term]. rewrite p_term3_let. rewrite p_ty_ok by (try reflexivity; auto; lia). cbn [obind].
  rewrite expect_hit. cbn [obind]. rewrite Hb by (try reflexivity; auto; lia). cbn [obind].
  rewrite expect_hit. cbn [obind]. rewrite Ht by (auto; lia). reflexivity.
Qed.
Lemma C4_print nl a next : C4 a -> C4 next -> C4 (FPrint nl a next None).
Proof.
  intros Ha Hn' n rest Hn Hs. destruct n as [|n]; [lia|]. rewrite tsz_print in Hn.
  cbn [Tk_term]. rewrite p_term_print. rewrite Ha by (try reflexivity; lia). cbn [obind].
  rewrite expect_hit. cbn [obind]. rewrite expect_hit. cbn [obind]. rewrite Hn' by (auto; lia). reflexivity.
Qed.

Lemma from1 t : wf t = true -> level t <= 1 -> C1 t -> Clevels t.
Proof.
  intros Hwf L H1. assert (H2 : C2 t) by (now apply lift12).
  assert (H3 : C3 t) by (apply lift23; auto; lia).
  assert (H4 : C4 t) by (apply lift34; auto; lia).
  repeat split; assumption.
Qed.
Lemma from2 t : wf t = true -> level t = 2 -> C2 t -> Clevels t.
Proof.
  intros Hwf L H2.
  assert (H3 : C3 t) by (apply lift23; auto; lia).
  assert (H4 : C4 t) by (apply lift34; auto; lia).
  repeat split; try assumption. intros n rest _ L1. lia.
Qed.
Lemma from3 t : wf t = true -> level t = 3 -> C3 t -> Clevels t.
Proof.
  intros Hwf L H3. assert (H4 : C4 t) by (apply lift34; auto; lia).
  repeat split; try assumption; intros n rest _ L1; lia.
Qed.
Lemma from4 t : level t = 4 -> C4 t -> Clevels t.
Proof. intros L H4. repeat split; try assumption; intros n rest _ L1; lia. Qed.

Lemma term_all t : wf t = true -> Clevels t.
Proof.
  apply wf_ind; clear t.
  - intros v Hv. apply from1; [cbn [wf]; now rewrite Hv | cbn; lia | apply C1_var].
  - intros z Hz. apply from1; [assumption | cbn; lia | now apply C1_lit].
  - intros a o b Hwf La Lb Ha Hb. apply from3; [assumption | reflexivity |]. apply C3_op; auto; [apply Ha | apply Hb].
  - intros s a b th el Hwf Hwa Ha Hb Hth Hel. apply from3; [assumption | reflexivity |].
    apply C3_if; auto; [apply Ha | | apply Hth | apply Hel]. destruct b as [b|]; [apply Hb | exact I].
  - intros nl a next Ha Hn. apply from4; [reflexivity|]. apply C4_print; [apply Ha | apply Hn].
  - intros v vty b t Hwf Hv Hvty Lb Hb Ht. apply from3; [assumption | reflexivity |].
    apply C3_let; auto; [apply Hb | apply Ht].
  - intros f args Hwf Hf Hargs. apply from1; [assumption | cbn; lia |]. apply C1_call. intros a Hin. now apply Hargs.
  - intros x args Hwf Hx Hargs. apply from2; [assumption | reflexivity |]. apply C2_ctor. intros a Hin. now apply Hargs.
  - intros s x targs args Hwf Ls Hx Hty Hs Hargs. apply from2; [assumption | reflexivity |].
    apply C2_dtor; auto; [apply Hs | intros a Hin; now apply Hargs].
  - intros s targs cls Hwf Ls Hty Hs Hcls. apply from2; [assumption | reflexivity |].
    apply wf_case_inv in Hwf. apply C2_case; auto; [apply Hs | tauto | intros c Hin p x ns g body ->; now apply (Hcls _ _ _ _ _ Hin)].
  - intros cls Hwf Hcls. apply from2; [assumption | reflexivity |]. cbn [wf] in Hwf. apply andb_prop in Hwf.
    apply C2_new; [tauto | intros c Hin p x ns g body ->; now apply (Hcls _ _ _ _ _ Hin)].
  - intros l t Hwf Hl Ht. apply from3; [assumption | reflexivity |]. apply C3_label, Ht.
  - intros l t Hwf Hl Ht. apply from3; [assumption | reflexivity |]. apply C3_goto, Ht.
  - intros a Hwf Ha. apply from3; [assumption | reflexivity |]. apply C3_exit, Ha.
  - intros t Hwf Ht. apply from1; [assumption | cbn; lia |]. apply C1_paren, Ht.
Qed.

Theorem term_roundtrip t n rest :
  wf t = true -> 6 * tsz t + 3 <= n -> stops rest = true -> p_term n (Tk_term t rest) = Some (t, rest).
Proof. intros Hwf Hn Hs. destruct (term_all t Hwf) as (_ & _ & _ & H4). now apply H4. Qed.

Definition sigsz_c (s : fctorsig) : nat := S (ctxsz (fctargs s)).
Definition sigsz_d (s : fdtorsig) : nat := S (ctxsz (fdtargs s) + tysz (fdtcont s)).
Definition declsz (d : fdecl) : nat :=
  match d with
  | FDDef d => S (ctxsz (fdctx d) + tysz (fdret d) + tsz (fdbody d))
  | FDData d => S (List.length (fdaparams d) + list_sum (map sigsz_c (fdactors d)))
  | FDCodata d => S (List.length (fcoparams d) + list_sum (map sigsz_d (fcodtors d)))
  end.

Lemma p_ctorsig_ok n s r :
  upper_ok (fctname s) && wf_ctx (fctargs s) = true -> sigsz_c s <= n -> head_is SLPar r = false ->
  p_ctorsig n (Tk_ctorsig s r) = Some (s, r).
Proof.
  intros Hwf Hn Hr. apply andb_prop in Hwf. destruct Hwf as [_ Hg]. destruct s as [x g]. unfold sigsz_c in Hn.
  cbn [fctname fctargs] in *. unfold p_ctorsig, Tk_ctorsig. cbn [p_upper obind fctname fctargs].
  rewrite p_sigargs_ok by (auto; lia). reflexivity.
Qed.
Lemma p_dtorsig_ok n s r :
  lower_ok (fdtname s) && wf_ctx (fdtargs s) && wf_ty (fdtcont s) = true -> sigsz_d s < n ->
  head_is SLBrack r = false ->
  p_dtorsig n (Tk_dtorsig s r) = Some (s, r).
Proof.
  intros Hwf Hn Hr. rewrite !andb_true_iff in Hwf. destruct Hwf as ((_ & Hg) & Hty). destruct s as [x g t].
  unfold sigsz_d in Hn. cbn [fdtname fdtargs fdtcont] in *. unfold p_dtorsig, Tk_dtorsig. cbn [p_lower obind fdtname fdtargs fdtcont].
  rewrite p_sigargs_ok by (try reflexivity; auto; lia). cbn [obind]. rewrite expect_hit. cbn [obind].
  rewrite p_ty_ok by (auto; lia). reflexivity.
Qed.

Lemma p_decl_ok n d rest :
  wf_decl d = true -> 6 * declsz d + 8 <= n -> p_decl n (Tk_decl d rest) = Some (d, rest).
Proof.
  intros Hwf Hn. destruct d as [d|d|d]; cbn [wf_decl declsz] in *.
  - (* data *) destruct d as [x ps cs]. cbn [fdaname fdaparams fdactors] in *.
    rewrite !andb_true_iff in Hwf. destruct Hwf as ((_ & _) & Hcs). rewrite forallb_forall in Hcs.
    unfold Tk_decl. cbn [p_decl fdaname fdaparams fdactors]. unfold bracketed.
    rewrite p_typarams_ok by (try reflexivity; lia). cbn [obind]. rewrite expect_hit. cbn [obind].
    rewrite (comma_loop_ok (p_ctorsig n) Tk_ctorsig SRBrace cs); [reflexivity | reflexivity | | | ].
    + intros s r _. reflexivity.
    + intros s r Hin Hr. apply p_ctorsig_ok; [now apply Hcs | | ].
      * pose proof (in_list_sum sigsz_c s cs Hin). lia.
      * apply stops_not; [reflexivity|]. eapply stops_sep; [|exact Hr]. now right.
    + pose proof (length_le_sum sigsz_c cs). assert (forall x, 1 <= sigsz_c x) by (intros; unfold sigsz_c; lia).
      specialize (H H0). lia.
  - (* codata *) destruct d as [x ps ds]. cbn [fcoaname fcoparams fcodtors] in *.
    rewrite !andb_true_iff in Hwf. destruct Hwf as ((_ & _) & Hds). rewrite forallb_forall in Hds.
    unfold Tk_decl. cbn [p_decl fcoaname fcoparams fcodtors]. unfold bracketed.
    rewrite p_typarams_ok by (try reflexivity; lia). cbn [obind]. rewrite expect_hit. cbn [obind].
    rewrite (comma_loop_ok (p_dtorsig n) Tk_dtorsig SRBrace ds); [reflexivity | reflexivity | | | ].
    + intros s r _. reflexivity.
    + intros s r Hin Hr. apply p_dtorsig_ok; [now apply Hds | | ].
      * pose proof (in_list_sum sigsz_d s ds Hin). lia.
      * apply stops_not; [reflexivity|]. eapply stops_sep; [|exact Hr]. now right.
    + pose proof (length_le_sum sigsz_d ds). assert (forall x, 1 <= sigsz_d x) by (intros; unfold sigsz_d; lia).
      specialize (H H0). lia.
  - (* def *) destruct d as [f g ret body]. cbn [fdname fdctx fdret fdbody] in *.
    rewrite !andb_true_iff in Hwf. destruct Hwf as (((_ & Hg) & Hret) & Hbody).
    unfold Tk_decl. cbn [p_decl fdname fdctx fdret fdbody].
    rewrite p_ctx_ok by (auto; lia). cbn [obind]. rewrite expect_hit. cbn [obind].
    rewrite p_ty_ok by (try reflexivity; auto; lia). cbn [obind].
    pose proof (term_all body Hbody) as (_ & _ & _ & H4).
    rewrite block_ok by (auto; lia). reflexivity.
Qed.

Definition progsz (ds : list fdecl) : nat := list_sum (map declsz ds).
Lemma Tk_decl_cons d k : exists h tl, Tk_decl d k = h :: tl.
Proof. destruct d; unfold Tk_decl; eauto. Qed.
Lemma p_decls_ok ds : forall m n, forallb wf_decl ds = true -> List.length ds < m -> 6 * progsz ds + 8 <= n ->
  p_decls m n (Tk_decls ds []) = Some ds.
Proof.
  induction ds as [|d ds IH]; intros m n Hwf Hm Hn.
  - destruct m; [cbn in Hm; lia|]. reflexivity.
  - destruct m; [cbn in Hm; lia|]. cbn [forallb] in Hwf. apply andb_prop in Hwf. destruct Hwf as [Hd Hds].
    assert (Hp : progsz (d :: ds) = declsz d + progsz ds) by reflexivity. rewrite Hp in Hn.
    cbn [Tk_decls]. destruct (Tk_decl_cons d (Tk_decls ds [])) as (h & tl & E).
    cbn [p_decls]. rewrite E. rewrite <- E.
    rewrite p_decl_ok by (auto; lia). cbn [obind].
    rewrite IH by (auto; cbn in Hm; lia). reflexivity.
Qed.

(* The parser model reads the token stream of every parser-shaped program back to the same tree.  The fuel that [parse]
   supplies need not be compared with the size of the tree: more fuel never changes the answer (parse_fuel_suffices). *)
Theorem roundtrip_tokens p : wf_prog p = true -> parse (T_prog p) = Some p.
Proof.
  intros Hwf. destruct p as [ds]. unfold wf_prog, T_prog in *. cbn [fpdecls] in *.
  set (ts := Tk_decls ds []).
  rewrite <- (parse_fuel_suffices ts (S (List.length ts + List.length ds)) (fuel_of ts + 6 * progsz ds + 8)) by lia.
  unfold parse_with. subst ts. rewrite p_decls_ok; [reflexivity | assumption | lia | lia].
Qed.
