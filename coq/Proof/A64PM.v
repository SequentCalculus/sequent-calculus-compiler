(* C11 on AArch64: the code the AArch64 back end emits for a parallel move (explicit substitution)
   performs the simultaneous assignment on the ISA state.  Instantiates the generic theorem
   Model/ParMoves.parallel_moves_correct with the instruction-selection lemma for `mov` and the
   save/restore of the cycle-breaking value in X2. *)
From Coq Require Import List ZArith NArith String Bool Lia FMapPositive.
From SCC Require Import Base.Sexp Lang.AxSyn Sem.AxSem Model.ParMoves Model.Backend Model.A64 Sem.A64Sem
  Proof.A64State Proof.A64ImmHw Proof.A64Imm Proof.A64Sel.
Import ListNotations.
Open Scope Z_scope.

Section Mentions.
Variable T : Type.
Variable eqb : T -> T -> bool.
Hypothesis eqb_spec : forall a b, reflect (a = b) (eqb a b).
Variable P : T -> Prop.

Definition amap_ok (pm : amap T) : Prop := forall k ts, In (k, ts) pm -> P k /\ Forall P ts.
Definition pinstr_ok (i : pinstr T) : Prop :=
  match i with Mov _ d s => P d /\ P s | Save _ t => P t | Restore _ t => P t end.

Lemma lookup_in pm n ts : lookup T eqb pm n = Some ts -> exists k, k = n /\ In (k, ts) pm.
Proof.
  induction pm as [|[k' ts'] r IH]; cbn; [discriminate|].
  destruct (eqb_spec n k') as [->|NE].
  - intros E; injection E as <-. eauto.
  - intros E. destruct (IH E) as (k & -> & I). eauto.
Qed.
Lemma lookup_ok pm n ts : amap_ok pm -> lookup T eqb pm n = Some ts -> Forall P ts.
Proof. intros A L. destruct (lookup_in pm n ts L) as (k & -> & I). apply (A _ _ I). Qed.

Lemma mapM_forall {A B} (f : A -> option B) (Q : A -> Prop) (R : B -> Prop) :
  forall l ys, (forall x y, Q x -> f x = Some y -> R y) -> Forall Q l -> mapM f l = Some ys -> Forall R ys.
Proof.
  induction l as [|x r IH]; cbn; intros ys H F E; [injection E as <-; constructor|].
  inversion F as [|? ? Qx Qr]; subst.
  destruct (f x) as [y|] eqn:Fx; [|discriminate]. destruct (mapM f r) as [ys'|] eqn:Mr; [|discriminate].
  injection E as <-. constructor; eauto.
Qed.

Lemma st_ok pm r : amap_ok pm -> forall fuel n tr, P n -> spanning_tree T eqb fuel pm r n = Some tr -> Forall P (nodes T tr).
Proof.
  intros A. induction fuel as [|f IH]; intros n tr Pn E; cbn in E; [discriminate|].
  destruct (eqb r n); [injection E as <-; constructor|].
  destruct (lookup T eqb pm n) as [ts|] eqn:L.
  - destruct (mapM (spanning_tree T eqb f pm r) ts) as [cs|] eqn:M; [|discriminate]. injection E as <-.
    cbn. constructor; [exact Pn|].
    assert (FA : Forall (fun c => Forall P (nodes T c)) cs).
    { eapply (mapM_forall _ P); [|eapply lookup_ok; eauto|exact M]. intros x y Px Ex. eapply IH; eauto. }
    clear M. induction FA; cbn; [constructor|]. apply Forall_app; auto.
  - injection E as <-. cbn. constructor; auto.
Qed.

Lemma tree_moves_ok tr : forall p, P p -> Forall P (nodes T tr) -> Forall pinstr_ok (tree_moves T p tr).
Proof.
  induction tr as [|t cs IH] using tree_ind2; intros p Pp F; cbn.
  - constructor; [exact Pp|constructor].
  - inversion F as [|? ? Pt Fc]; subst. apply Forall_app; split; [|constructor; [split; auto|constructor]].
    clear F. induction IH as [|c cs' Hc Hcs IHcs]; cbn in *; [constructor|].
    apply Forall_app in Fc as [F1 F2]. apply Forall_app; split; auto.
Qed.

Lemma root_moves_ok pm fuel k r : amap_ok pm -> root_for T eqb fuel pm k = Some r -> Forall pinstr_ok (root_moves T r).
Proof.
  intros A E. unfold root_for in E. destruct (lookup T eqb pm k) as [ts|] eqn:L; [|discriminate].
  destruct (mapM (spanning_tree T eqb fuel pm k) (remove1 T eqb k ts)) as [cs|] eqn:M; [|discriminate]. injection E as <-.
  destruct (lookup_in pm k ts L) as (k' & -> & I). destruct (A _ _ I) as (Pk & Fts).
  assert (FA : Forall (fun c => Forall P (nodes T c)) cs).
  { eapply (mapM_forall _ P); [| |exact M].
    - intros x y Px Ex. eapply st_ok; eauto.
    - unfold remove1. apply Forall_forall. intros x Hx. apply filter_In in Hx as [Hx _].
      rewrite Forall_forall in Fts. auto. }
  cbn. apply Forall_app; split.
  - clear M. induction FA; cbn; [constructor|]. apply Forall_app; split; auto. apply tree_moves_ok; auto.
  - destruct (existsb (refers_back T) cs); constructor; [exact Pk|constructor].
Qed.

Lemma delete_targets_ok D pm : amap_ok pm -> amap_ok (delete_targets T eqb D pm).
Proof.
  intros A k ts I. unfold delete_targets in I. apply in_map_iff in I as ([k' ts'] & E & I). cbn in E.
  injection E as <- <-. destruct (A _ _ I) as (Pk & F). split; auto.
  apply Forall_forall. intros x Hx. apply filter_In in Hx as [Hx _]. rewrite Forall_forall in F. auto.
Qed.

Lemma forest_ok fuel : forall keys pm rs, amap_ok pm -> forest_loop T eqb fuel keys pm = Some rs ->
  Forall pinstr_ok (flat_map (root_moves T) rs).
Proof.
  induction keys as [|k ks IH]; intros pm rs A E; cbn in E; [injection E as <-; constructor|].
  destruct (root_for T eqb fuel pm k) as [r|] eqn:R; [|discriminate].
  destruct (forest_loop T eqb fuel ks (delete_targets T eqb (visited_by T r) pm)) as [rs'|] eqn:FL; [|discriminate].
  injection E as <-. cbn. apply Forall_app; split.
  - eapply root_moves_ok; eauto.
  - eapply IH; [|exact FL]. apply delete_targets_ok; auto.
Qed.

Lemma parallel_moves_mentions fuel A is :
  amap_ok A -> parallel_moves T eqb fuel A = Some is -> Forall pinstr_ok is.
Proof.
  intros OK E. unfold parallel_moves, spanning_forest in E.
  destruct (forest_loop T eqb fuel (map fst A) A) as [rs|] eqn:F; [|discriminate]. injection E as <-.
  eapply forest_ok; eauto.
Qed.
End Mentions.

Lemma areg_compare_eq a b : areg_compare a b = Datatypes.Eq <-> a = b.
Proof.
  destruct a as [x| |], b as [y| |]; cbn; try (split; [discriminate|congruence]); try tauto.
  rewrite N.compare_eq_iff. split; congruence.
Qed.
Lemma atemp_compare_eq a b : atemp_compare a b = Datatypes.Eq <-> a = b.
Proof.
  destruct a as [x|x], b as [y|y]; cbn; try (split; [discriminate|congruence]).
  - rewrite areg_compare_eq. split; congruence.
  - rewrite N.compare_eq_iff. split; congruence.
Qed.
Definition a64_teqb := teqb a64_backend.
Lemma a64_teqb_spec a b : reflect (a = b) (a64_teqb a b).
Proof.
  unfold a64_teqb, teqb. cbn [b_tcompare a64_backend a64_backend_with].
  destruct (atemp_compare a b) eqn:E; constructor.
  - now apply atemp_compare_eq.
  - intros H. apply atemp_compare_eq in H. congruence.
  - intros H. apply atemp_compare_eq in H. congruence.
Qed.

Section Sim.
Variable im : image.

Definition V := option Z.
Definition abs_state : Type := ((atemp -> V) * V)%type.
(* the ISA state seen as the abstract parallel-move state: temporaries + the saved value in X2 *)
Definition represents (s : astate) (sp : Z) (c : abs_state) : Prop :=
  (forall t, operand_ok t -> lget s sp t = fst c t) /\ rget s TEMP = snd c.

Lemma operand_ok_not_temp t : operand_ok t -> t <> AR TEMP /\ t <> AR TEMP2.
Proof. intros (_ & A & B); auto. Qed.

Lemma sim_pinstr s sp c i :
  frame_ok s sp -> represents s sp c -> pinstr_ok atemp operand_ok i ->
  exists s', run_straight im (emit_pinstr a64_backend false i) s = MOk s' /\
             frame_ok s' sp /\ heap s' = heap s /\ out s' = out s /\
             represents s' sp (ParMoves.step atemp a64_teqb V c i).
Proof.
  intros F (R1 & R2) OK. assert (SP : sp_ok sp) by apply F.
  destruct i as [d src|t|t]; cbn [pinstr_ok] in OK; cbn [emit_pinstr b_mov b_store_temporary b_restore_temporary a64_backend a64_backend_with ParMoves.step].
  - (* Mov *)
    destruct OK as (Od & Os). pose proof Od as (Ld & Nd1 & Nd2).
    destruct (a_mov_ok im s sp d src F Ld (proj1 Os)) as (s' & E & Vd & Vo & H1 & H2 & _ & F').
    exists s'. split; [exact E|]. split; [exact F'|]. split; [exact H1|]. split; [exact H2|].
    split; cbn [fst snd].
    + intros t Ot. unfold upd. destruct (a64_teqb_spec t d) as [->|NE]; [rewrite Vd; apply R1; auto|].
      rewrite Vo; [apply R1; auto|apply Ot|]. intros [<-|[<-|[]]]; [congruence|now apply Ot].
    + rewrite <- R2. apply (Vo (AR TEMP)); [exact I|]. intros [->|[Q|[]]]; [now apply Nd1|discriminate Q].
  - (* Save: X2 := t *)
    pose proof OK as (Lt & N1 & N2). unfold a_store_temporary. consts.
    exists (rset s (X 2) (lget s sp t)). split.
    { destruct t as [r|p]; cbn [run_straight lget]; [reflexivity|now rewrite (step_LDR_slot im s sp F) by exact Lt]. }
    split; [frame|]. split; [fields|]. split; [fields|]. split; cbn [fst snd].
    + intros l (Ll & M1 & M2). consts. rewrite <- R1 by (repeat split; auto; consts; auto).
      destruct l as [[m| |]|q]; cbn [loc_ok gp] in Ll; try tauto; rd; reflexivity.
    + rewrite TEMP_is, rget_rset_same by exact I. apply R1; auto.
  - (* Restore: t := X2 *)
    pose proof OK as (Lt & N1 & N2). unfold a_restore_temporary. consts.
    exists (lset s sp t (rget s (X 2))). split.
    { destruct t as [r|p]; cbn [run_straight lset]; [reflexivity|now rewrite (step_STR_slot im s sp F) by exact Lt]. }
    split; [apply frame_ok_lset; auto|]. split; [apply heap_lset|]. split; [apply out_lset|]. split; cbn [fst snd].
    + intros l (Ll & M1 & M2). unfold upd. destruct (a64_teqb_spec l t) as [->|NE].
      * rewrite lget_lset_same by exact Lt. exact R2.
      * rewrite lget_lset_other by auto. apply R1. repeat split; auto.
    + rewrite TEMP_is. destruct t as [[tn| |]|tq]; cbn [loc_ok gp] in Lt; try tauto; cbn [lset];
        try (rewrite rget_rset_other by congruence); try rewrite rget_sset; exact R2.
Qed.

Lemma sim_exec is : forall s sp c,
  frame_ok s sp -> represents s sp c -> Forall (pinstr_ok atemp operand_ok) is ->
  exists s', run_straight im (flat_map (emit_pinstr a64_backend false) is) s = MOk s' /\
             frame_ok s' sp /\ heap s' = heap s /\ out s' = out s /\
             represents s' sp (ParMoves.exec atemp a64_teqb V is c).
Proof.
  induction is as [|i r IH]; intros s sp c F R OK; cbn [flat_map].
  - exists s. cbn. split; [reflexivity|]. split; [exact F|]. split; [reflexivity|]. split; [reflexivity|exact R].
  - inversion OK as [|? ? Oi Or]; subst.
    destruct (sim_pinstr s sp c i F R Oi) as (s1 & E1 & F1 & H1 & O1 & R1).
    destruct (IH s1 sp _ F1 R1 Or) as (s2 & E2 & F2 & H2 & O2 & R2).
    exists s2. rewrite run_straight_app, E1. split; [exact E2|]. split; [exact F2|].
    split; [congruence|]. split; [congruence|]. exact R2.
Qed.

Lemma flat_map_flat_map {A B C} (f : A -> list B) (g : B -> list C) l :
  flat_map g (flat_map f l) = flat_map (fun x => flat_map g (f x)) l.
Proof. induction l as [|x r IH]; cbn; [reflexivity|]. now rewrite flat_map_app, IH. Qed.

(* explicit substitution on AArch64: the emitted move code is the simultaneous assignment *)
Theorem a64_parallel_moves_ok (am : amap atemp) (code : list acode) s sp :
  frame_ok s sp ->
  indeg1 atemp a64_teqb am -> nodup_targets atemp a64_teqb am -> amap_ok atemp operand_ok am ->
  parallel_moves_code a64_backend am = Ok code ->
  exists s', run_straight im code s = MOk s' /\ frame_ok s' sp /\ heap s' = heap s /\ out s' = out s /\
             (forall a b, edge atemp a64_teqb am a b -> lget s' sp b = lget s sp a) /\
             (forall u, operand_ok u -> (forall a, ~ edge atemp a64_teqb am a u) -> lget s' sp u = lget s sp u).
Proof.
  intros F ID NT OK E. unfold parallel_moves_code in E. fold a64_teqb in E.
  destruct (spanning_forest atemp a64_teqb (List.length (all_targets atemp am) + 2) am) as [forest|] eqn:SF; [|discriminate].
  injection E as <-.
  assert (PM : parallel_moves atemp a64_teqb (List.length (all_targets atemp am) + 2) am = Some (flat_map (root_moves atemp) forest))
    by (unfold parallel_moves; now rewrite SF).
  assert (CODE : flat_map (emit_root a64_backend) forest = flat_map (emit_pinstr a64_backend false) (flat_map (root_moves atemp) forest)).
  { rewrite flat_map_flat_map. reflexivity. }
  rewrite CODE.
  pose proof (parallel_moves_mentions atemp a64_teqb a64_teqb_spec operand_ok _ am _ OK PM) as MEN.
  destruct (sim_exec _ s sp (lget s sp, rget s TEMP) F (conj (fun t _ => eq_refl) eq_refl) MEN)
    as (s' & R & F' & H' & O' & (V1 & _)).
  destruct (parallel_moves_correct atemp a64_teqb a64_teqb_spec V _ am _ (lget s sp) (rget s TEMP) ID NT PM) as (C1 & C2).
  exists s'. split; [exact R|]. split; [exact F'|]. split; [exact H'|]. split; [exact O'|]. split.
  - intros a b Eab. rewrite <- (C1 a b Eab). apply V1.
    destruct Eab as (ts & L & I). destruct (lookup_in atemp a64_teqb a64_teqb_spec am a ts L) as (k & -> & Iam).
    destruct (OK _ _ Iam) as (_ & Fts). rewrite Forall_forall in Fts. auto.
  - intros u Ou NE. rewrite <- (C2 u NE). apply V1; auto.
Qed.
End Sim.
