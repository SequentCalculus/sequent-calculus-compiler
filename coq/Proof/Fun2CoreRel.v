(* Proof/Fun2CoreRel  -  the simulation relation between the Fun CEK machine (Sem/FunSem.v) and the
   Core abstract machine (Sem/CoreSem.v), designed for the FULL language.

   Both machines are deterministic, fuel-indexed functions.  The basic judgement is

       sim n cf r   :=  every run of the source configuration cf with fuel n that ends in a final
                        outcome (OExit / OUndef: not stuck, not out of fuel) is reproduced - output
                        and outcome - by some run of the Core machine from the step result r

   (a FORWARD simulation, indexed by the source fuel n; it is downward closed in n).  Values and
   continuations are related by a step-indexed relation, defined by recursion on the index:

     vrel n : fval  -> pval -> Prop     FvInt z          ~ PInt z
                                        FvCtor K fields  ~ PCtor K fields'   fields pointwise ([brel n])
                                        FvNew / FvThunk  ~ any producer value that behaves alike under
                                                           every destructor ([Co n], behavioural)
     brel n : fbv   -> bval -> Prop     FbP v ~ BP pv (vrel n),  FbK k ~ BK kv (Kk n false)
     Kk n c : fkont -> kval -> Prop     continuations, by the KIND c of the values they expect (false: data,
                                        true: codata): for every j < n and every value v of kind c with
                                        v ~_j pv:   sim j (FRet k v) (interact_val pv kv)
     Co n   : fval  -> pval -> Prop     for every j < n, destructor x, DATA arguments args ~_j args' and
                                        continuation k ~_j kv of the kind x returns ([dkind]):
                                        sim (S j) (FRet (FkDtor x args k) v)
                                                  (interact_val pv (KDtor x (args' ++ [BK kv])))
                                        (the source machine takes a step at a destructor frame: S j)

   A source environment and a Core environment are related pointwise by brel on the names the Core
   statement mentions (Proof/Fun2CoreFLa.v); a source continuation k is related to the SYNTACTIC Core
   consumer the translation carries along through what that syntax does in every environment that agrees
   with the current one on the consumer's free variables.

   Kinds: in a well-typed program a codata value is only ever returned to a destructor frame (or to a
   covariable standing for one): [Kk_dtor] - a destructor frame FkDtor x args k ~ KDtor x (args' ++ [kv]) is a
   continuation of kind codata.  The Core machine treats a cut at a codata type consumer-first, a
   by-name let binds a thunk (PThunk ~ FvThunk, related by Co through the translation of the bound term).
   The fundamental lemma is proved for the fragment [frag]/[kd] of Model/Fun2CoreGuard.v. *)
From Coq Require Import List ZArith NArith String Bool Lia.
From SCC Require Import Base.Sexp Lang.SynUtil Lang.FunSyn Lang.FunTy Lang.CoreSyn.
From SCC Require Import Sem.AxSem Sem.CoreSem Sem.FunSem Model.Fun2Core Model.Fun2CoreGuard Proof.Fun2CoreProof Proof.Fun2CoreSim.
Import ListNotations.
Open Scope string_scope.
Open Scope list_scope.

(* final outcomes: normal exit and undefined arithmetic; stuck and out-of-fuel runs are not compared *)
Definition final (o : obs) : Prop :=
  match snd o with OExit _ | OUndef _ => True | _ => False end.
Definition finalb (o : obs) : bool :=
  match snd o with OExit _ | OUndef _ => true | _ => false end.
Lemma finalb_final : forall o, finalb o = true <-> final o.
Proof. intros [out [z|w|w|]]; unfold finalb, final; simpl; split; intros H; try discriminate; try contradiction; auto. Qed.
Lemma final_not_oof : forall o, final o -> snd o <> OOutOfFuel.
Proof. intros [out o] H E. unfold final in H. simpl in *. subst o. exact H. Qed.
Lemma defined_final : forall o, defined o = true -> final o.
Proof. intros [out [z|w|w|]]; unfold defined, final; simpl; intros H; try discriminate; exact I. Qed.

(* data values: integers and constructor values whose fields are data values (no closure, no thunk,
   no continuation stored in a field); [dbv]: what an environment may bind in the fragment - a data
   value or a continuation (label) *)
Fixpoint dval (v : fval) : Prop :=
  match v with
  | FvInt _ => True
  | FvCtor _ args =>
      (fix go (l : list fbv) : Prop :=
         match l with
         | [] => True
         | FbP v' :: r => dval v' /\ go r
         | FbK _ :: _ => False
         end) args
  | _ => False
  end.
Definition dfield (b : fbv) : Prop := match b with FbP v => dval v | FbK _ => False end.
Definition dbv (b : fbv) : Prop := match b with FbP v => dval v | FbK _ => True end.
Lemma dval_ctor : forall tag args, dval (FvCtor tag args) <-> Forall dfield args.
Proof.
  intros tag args. simpl. induction args as [|b r IH].
  - split; [constructor | auto].
  - destruct b as [v|k]; simpl.
    + split.
      * intros [H1 H2]. constructor; [exact H1 | apply IH; exact H2].
      * intros H. inversion H; subst. split; [assumption | apply IH; assumption].
    + split; [intros [] | intros H; inversion H; subst; contradiction].
Qed.
Lemma dfield_dbv : forall b, dfield b -> dbv b.
Proof. intros [v|k] H; simpl in *; [exact H | exact I]. Qed.

Definition kv_ok (kv : kval) : Prop := match kv with KMuT _ _ _ => False | _ => True end.

(* codata values; the kind of a value *)
Definition cval (v : fval) : Prop := match v with FvNew _ _ | FvThunk _ _ => True | _ => False end.
Definition vkind (c : bool) (v : fval) : Prop := if c then cval v else dval v.

Section Rel.
  Variable p : fcprog.
  Variable cp : cprog.

  Definition crun_res (m : nat) (r : sres) (out : prints) : obs :=
    match r with
    | SNext c => crun m cp c out
    | SPrint nl z c => crun m cp c ((nl, z) :: out)
    | SHalt o => finish out o
    end.
  Lemma crun_S : forall m c out, crun (S m) cp c out = crun_res m (cstep cp c) out.
  Proof. intros. simpl. destruct (cstep cp c); reflexivity. Qed.

  Definition sim (n : nat) (cf : fconfig) (r : sres) : Prop :=
    forall out o, frun n p cf out = o -> final o -> exists m, crun_res m r out = o.

  Lemma sim_zero : forall cf r, sim 0 cf r.
  Proof. intros cf r out o H F. simpl in H. subst o. contradiction F. Qed.
  Lemma sim_mono : forall n n' cf r, sim n cf r -> (n' <= n)%nat -> sim n' cf r.
  Proof.
    intros n n' cf r H Hle out o Hr F.
    pose proof (frun_mono p n' cf out o Hr (final_not_oof _ F) (n - n')) as Hm.
    replace (n' + (n - n'))%nat with n in Hm by lia. exact (H out o Hm F).
  Qed.
  Lemma sim_fstep : forall n cf cf' r, fstep p cf = FNext cf' -> sim n cf' r -> sim (S n) cf r.
  Proof. intros n cf cf' r Hs H out o Hr F. rewrite (frun_next p n cf cf' out Hs) in Hr. exact (H out o Hr F). Qed.
  Lemma sim_fstep_inv : forall n cf cf' r, fstep p cf = FNext cf' -> sim (S n) cf r -> sim n cf' r.
  Proof. intros n cf cf' r Hs H out o Hr F. rewrite <- (frun_next p n cf cf' out Hs) in Hr. exact (H out o Hr F). Qed.
  Lemma sim_cstep : forall n cf c, sim n cf (cstep cp c) -> sim n cf (SNext c).
  Proof.
    intros n cf c H out o Hr F. destruct (H out o Hr F) as [m Hm]. exists (S m).
    change (crun (S m) cp c out = o). rewrite crun_S. exact Hm.
  Qed.
  Lemma sim_out : forall n cf cf' nl z c', fstep p cf = FOut nl z cf' -> sim n cf' (SNext c') ->
    sim (S n) cf (SPrint nl z c').
  Proof.
    intros n cf cf' nl z c' Hs H out o Hr F. rewrite (frun_out p n cf cf' nl z out Hs) in Hr.
    exact (H _ o Hr F).
  Qed.
  Lemma sim_halt : forall n cf o, fstep p cf = FHalt o -> sim (S n) cf (SHalt o).
  Proof. intros n cf o Hs out o' Hr F. rewrite (frun_halt p n cf o out Hs) in Hr. exists 0%nat. exact Hr. Qed.
  Lemma sim_stuck : forall n cf w r, fstep p cf = FHalt (OStuck w) -> sim (S n) cf r.
  Proof.
    intros n cf w r Hs out o Hr F. rewrite (frun_halt p n cf _ out Hs) in Hr. subst o. contradiction F.
  Qed.

  (* the structural part of the value relation, parameterised by the behavioural parts *)
  Section Struct.
    Variable KbP : fkont -> kval -> Prop.
    Variable CoP : fval -> pval -> Prop.
    Fixpoint vrel_s (v : fval) (pv : pval) {struct v} : Prop :=
      match v with
      | FvInt z => pv = PInt z
      | FvCtor tag args =>
          match pv with
          | PCtor tag' args' =>
              tag' = new_id tag /\
              (fix go (l : list fbv) (l' : list bval) {struct l} : Prop :=
                 match l, l' with
                 | [], [] => True
                 | b :: r, b' :: r' => brel_s b b' /\ go r r'
                 | _, _ => False
                 end) args args'
          | _ => False
          end
      | FvNew _ _ | FvThunk _ _ => CoP v pv
      end
    with brel_s (b : fbv) (b' : bval) {struct b} : Prop :=
      match b with
      | FbP v => match b' with BP pv => vrel_s v pv | BK _ => False end
      | FbK k => match b' with BK kv => KbP k kv | BP _ => False end
      end.

    Lemma vrel_s_ctor : forall tag args pv,
      vrel_s (FvCtor tag args) pv <-> exists args', pv = PCtor (new_id tag) args' /\ Forall2 brel_s args args'.
    Proof.
      intros tag args pv. simpl. destruct pv as [z|tag' args'|cls e|a s e|m];
        try (split; [intros [] | intros [x [H _]]; discriminate H]).
      assert (Hl : forall l l', (fix go (l : list fbv) (l' : list bval) {struct l} : Prop :=
                 match l, l' with
                 | [], [] => True
                 | b :: r, b' :: r' => brel_s b b' /\ go r r'
                 | _, _ => False
                 end) l l' <-> Forall2 brel_s l l').
      { induction l as [|b r IH]; intros [|b' r'].
        - split; [constructor | auto].
        - split; [intros [] | intros H; inversion H].
        - split; [intros [] | intros H; inversion H].
        - rewrite IH. split.
          + intros [H1 H2]. constructor; assumption.
          + intros H. inversion H; subst. split; assumption. }
      rewrite Hl. split.
      - intros [Ht Hf]. subst tag'. exists args'. split; [reflexivity | exact Hf].
      - intros [x [Hx Hf]]. injection Hx as Ht Ha. subst. split; [reflexivity | exact Hf].
    Qed.
  End Struct.

  Lemma vrel_s_impl : forall (K1 K2 : fkont -> kval -> Prop) (C1 C2 : fval -> pval -> Prop),
    (forall k kv, K1 k kv -> K2 k kv) -> (forall v pv, C1 v pv -> C2 v pv) ->
    forall v pv, vrel_s K1 C1 v pv -> vrel_s K2 C2 v pv.
  Proof.
    intros K1 K2 C1 C2 HK HC.
    fix IH 1. intros v pv. destruct v as [z|tag args|cls e|t e].
    - simpl. auto.
    - rewrite !vrel_s_ctor. intros [args' [Hp Hf]]. exists args'. split; [exact Hp|].
      clear Hp. revert args' Hf. induction args as [|b r IHr]; intros args' Hf.
      + inversion Hf. constructor.
      + inversion Hf as [|? b' ? r' Hb Hr]; subst. constructor; [|apply IHr; exact Hr].
        destruct b as [v|k]; destruct b' as [pv'|kv]; simpl in Hb |- *;
          [apply IH; exact Hb | contradiction | contradiction | apply HK; exact Hb].
    - simpl. apply HC.
    - simpl. apply HC.
  Qed.

  (* the step-indexed behavioural parts *)
  (* continuations are indexed by the KIND of the values they expect: data (false) or codata (true) *)
  Definition kb_step (K : bool -> fkont -> kval -> Prop) (C : fval -> pval -> Prop) (j : nat) (c : bool)
             (k : fkont) (kv : kval) : Prop :=
    forall v pv, vkind c v -> vrel_s (K false) C v pv -> sim j (FRet k v) (interact_val pv kv).
  (* destructor arguments are data values; the continuation has the kind the destructor returns *)
  Definition co_step (K : bool -> fkont -> kval -> Prop) (C : fval -> pval -> Prop) (j : nat) (v : fval) (pv : pval) : Prop :=
    forall x args args' k kv,
      Forall2 (brel_s (K false) C) args args' -> Forall dfield args -> K (dkind p x) k kv ->
      sim (S j) (FRet (FkDtor x args k) v) (interact_val pv (KDtor (new_id x) (args' ++ [BK kv]))).

  (* a continuation for codata values is never a mu~ closure (at a codata type a cut against a mu~ is
     consumer-first: the mu~ would receive a thunk, not a value) *)
  Fixpoint Kk (n : nat) : bool -> fkont -> kval -> Prop :=
    match n with
    | O => fun c _ kv => c = true -> kv_ok kv
    | S j => fun c k kv => Kk j c k kv /\ kb_step (Kk j) (Co j) j c k kv
    end
  with Co (n : nat) : fval -> pval -> Prop :=
    match n with
    | O => fun _ _ => True
    | S j => fun v pv => Co j v pv /\ co_step (Kk j) (Co j) j v pv
    end.
  Definition Kb (n : nat) : fkont -> kval -> Prop := Kk n false.

  Definition vrel (n : nat) : fval -> pval -> Prop := vrel_s (Kb n) (Co n).
  Definition brel (n : nat) : fbv -> bval -> Prop := brel_s (Kb n) (Co n).

  Lemma Kk_mono : forall n n' c k kv, Kk n c k kv -> (n' <= n)%nat -> Kk n' c k kv.
  Proof.
    induction n as [|n IH]; intros n' c k kv H Hle.
    - assert (n' = 0)%nat by lia. subst. exact H.
    - destruct (Nat.eq_dec n' (S n)) as [->|Hne]; [exact H|]. apply IH; [exact (proj1 H) | lia].
  Qed.
  Lemma Kk_ok : forall n k kv, Kk n true k kv -> kv_ok kv.
  Proof. intros n k kv H. apply (Kk_mono n 0 true k kv H (Nat.le_0_l n)). reflexivity. Qed.
  Lemma Kb_mono : forall n n' k kv, Kb n k kv -> (n' <= n)%nat -> Kb n' k kv.
  Proof. intros n n' k kv. apply Kk_mono. Qed.
  Lemma Co_mono : forall n n' v pv, Co n v pv -> (n' <= n)%nat -> Co n' v pv.
  Proof.
    induction n as [|n IH]; intros n' v pv H Hle.
    - assert (n' = 0)%nat by lia. subst. exact I.
    - destruct (Nat.eq_dec n' (S n)) as [->|Hne]; [exact H|]. apply IH; [exact (proj1 H) | lia].
  Qed.
  Lemma vrel_mono : forall n n' v pv, vrel n v pv -> (n' <= n)%nat -> vrel n' v pv.
  Proof.
    intros n n' v pv H Hle. unfold vrel in *. eapply vrel_s_impl; [| |exact H].
    - intros k kv Hk. eapply Kb_mono; eauto.
    - intros v0 pv0 Hc. eapply Co_mono; eauto.
  Qed.
  Lemma brel_mono : forall n n' b b', brel n b b' -> (n' <= n)%nat -> brel n' b b'.
  Proof.
    intros n n' b b' H Hle. destruct b as [v|k]; destruct b' as [pv|kv]; simpl in *; try contradiction.
    - eapply vrel_mono; eauto.
    - eapply Kb_mono; eauto.
  Qed.
  Lemma brels_mono : forall n n' l l', Forall2 (brel n) l l' -> (n' <= n)%nat -> Forall2 (brel n') l l'.
  Proof. intros n n' l l' H Hle. induction H; constructor; auto. eapply brel_mono; eauto. Qed.

  (* using a related continuation: every smaller index *)
  Lemma Kk_use : forall n c k kv, Kk n c k kv -> forall j, (j < n)%nat ->
    forall v pv, vkind c v -> vrel j v pv -> sim j (FRet k v) (interact_val pv kv).
  Proof.
    intros n c k kv H j Hlt v pv Hd Hv.
    assert (HS : Kk (S j) c k kv) by (eapply Kk_mono; [exact H | lia]).
    exact (proj2 HS v pv Hd Hv).
  Qed.
  Lemma Kb_use : forall n k kv, Kb n k kv -> forall j, (j < n)%nat ->
    forall v pv, dval v -> vrel j v pv -> sim j (FRet k v) (interact_val pv kv).
  Proof. intros n k kv H j Hlt v pv Hd Hv. eapply (Kk_use n false); eauto. Qed.
  (* establishing one *)
  Lemma Kk_intro : forall n c k kv, (c = true -> kv_ok kv) ->
    (forall j, (j < n)%nat -> forall v pv, vkind c v -> vrel j v pv -> sim j (FRet k v) (interact_val pv kv)) ->
    Kk n c k kv.
  Proof.
    induction n as [|n IH]; intros c k kv Hok H; [exact Hok|]. split.
    - apply IH; [exact Hok|]. intros j Hj. apply H. lia.
    - intros v pv Hd Hv. apply (H n); [lia | exact Hd | exact Hv].
  Qed.
  Lemma Kb_intro : forall n k kv,
    (forall j, (j < n)%nat -> forall v pv, dval v -> vrel j v pv -> sim j (FRet k v) (interact_val pv kv)) ->
    Kb n k kv.
  Proof. intros n k kv H. apply (Kk_intro n false); [discriminate | exact H]. Qed.

  (* codata values: established and used through their behaviour under destructors (the source
     machine takes at least one step at a destructor frame, hence the index S j) *)
  Lemma Co_intro : forall n v pv,
    (forall j, (j < n)%nat -> forall x args args' k kv,
       Forall2 (brel j) args args' -> Forall dfield args -> Kk j (dkind p x) k kv ->
       sim (S j) (FRet (FkDtor x args k) v) (interact_val pv (KDtor (new_id x) (args' ++ [BK kv])))) ->
    Co n v pv.
  Proof.
    induction n as [|n IH]; intros v pv H; [exact I|]. split.
    - apply IH. intros j Hj. apply H. lia.
    - intros x args args' k kv Ha Hd Hk. apply (H n); [lia | exact Ha | exact Hd | exact Hk].
  Qed.
  Lemma Co_use : forall n v pv, Co n v pv -> forall j, (j < n)%nat -> forall x args args' k kv,
    Forall2 (brel j) args args' -> Forall dfield args -> Kk j (dkind p x) k kv ->
    sim (S j) (FRet (FkDtor x args k) v) (interact_val pv (KDtor (new_id x) (args' ++ [BK kv]))).
  Proof.
    intros n v pv H j Hlt x args args' k kv Ha Hd Hk.
    assert (HS : Co (S j) v pv) by (eapply Co_mono; [exact H | lia]).
    exact (proj2 HS x args args' k kv Ha Hd Hk).
  Qed.
  (* a destructor frame is a continuation for codata values *)
  Lemma Kk_dtor : forall n x args args' k kv,
    Forall2 (brel n) args args' -> Forall dfield args -> Kk n (dkind p x) k kv ->
    Kk n true (FkDtor x args k) (KDtor (new_id x) (args' ++ [BK kv])).
  Proof.
    intros n x args args' k kv Ha Hd Hk. apply Kk_intro; [intros _; exact I|]. intros j Hj v pv Hc Hv.
    assert (HCo : Co j v pv).
    { destruct v as [z|tag fs|cls e|t e]; simpl in Hc; try contradiction; exact Hv. }
    destruct j as [|j1]; [apply sim_zero|].
    apply (Co_use (S j1) v pv HCo j1 (Nat.lt_succ_diag_r j1)).
    - eapply brels_mono; [exact Ha | lia].
    - exact Hd.
    - eapply Kk_mono; [exact Hk | lia].
  Qed.

  (* data values and their Core counterparts *)
  Lemma vrel_int : forall n z pv, vrel n (FvInt z) pv <-> pv = PInt z.
  Proof. intros. reflexivity. Qed.
  Lemma vrel_ctor : forall n tag args pv,
    vrel n (FvCtor tag args) pv <-> exists args', pv = PCtor (new_id tag) args' /\ Forall2 (brel n) args args'.
  Proof. intros. unfold vrel, brel. apply vrel_s_ctor. Qed.
  Lemma vrel_co : forall n v pv, cval v -> (vrel n v pv <-> Co n v pv).
  Proof. intros n v pv H. destruct v; simpl in H; try contradiction; reflexivity. Qed.
  Lemma brel_P : forall n v b', brel n (FbP v) b' <-> exists pv, b' = BP pv /\ vrel n v pv.
  Proof.
    intros n v b'. destruct b' as [pv|kv]; simpl.
    - split; [intros H; exists pv; split; [reflexivity | exact H] | intros [pv' [E H]]; injection E as E; subst; exact H].
    - split; [intros [] | intros [pv' [E _]]; discriminate E].
  Qed.
  Lemma brel_K : forall n k b', brel n (FbK k) b' <-> exists kv, b' = BK kv /\ Kb n k kv.
  Proof.
    intros n k b'. destruct b' as [pv|kv]; simpl.
    - split; [intros [] | intros [kv' [E _]]; discriminate E].
    - split; [intros H; exists kv; split; [reflexivity | exact H] | intros [kv' [E H]]; injection E as E; subst; exact H].
  Qed.

  (* a data value related to pv is an integer or a constructor value: it is neither forced nor resumed *)
  Lemma dval_interact_ret : forall n v pv m, dval v -> vrel n v pv ->
    interact_val pv (KRet m) = SNext (App m (BP pv)).
  Proof.
    intros n v pv m Hd Hv. destruct v as [z|tag args|cls e|t e]; try contradiction.
    - apply vrel_int in Hv. subst. reflexivity.
    - apply vrel_ctor in Hv. destruct Hv as [args' [Hp _]]. subst. reflexivity.
  Qed.
End Rel.
