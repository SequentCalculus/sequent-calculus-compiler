(* Proof/ShrinkTyTop.v (C12, fragment 2) - shrinking preserves typing on the fragment [frag2t_prog]:
   the statement that discharges hypothesis H_shrink_wt of the C12 composition on that fragment, the
   composition restated with the fragment predicate, the refutation of the unguarded statement, and
   the example of Proof/ShrinkExample2.v as a member of the fragment. *)
From Coq Require Import List ZArith NArith String Bool Lia.
From SCC Require Import Base.Sexp Lang.FunSyn Lang.CoreSyn Lang.AxSyn Sem.AxSem Sem.FsCheck Sem.CoreCheck Sem.FunTyping
     Model.Check Model.Fun2Core Model.Backend Model.Focus Model.FocusCheck Model.Shrink
     Model.Linearize Model.LinCheck Model.Capacity Model.WtDefs Model.X86 Model.A64 Model.RV.
From SCC Require Import Proof.ShrinkProof Proof.ShrinkSem Proof.ShrinkRn Proof.ShrinkSimProg Proof.ShrinkTyProg Proof.ShrinkBindersOk
     Proof.LinearizeProof Proof.AxToLin Proof.CodegenTotal Proof.CodegenX86 Proof.CodegenA64 Proof.CodegenRV Proof.WtPreserve
     Proof.ShrinkExample2 Proof.ShrinkExample2Ok.
From SCC Require Sem.AxCheck Sem.CoreSem.
Import ListNotations.
Open Scope list_scope.

Theorem shrink_preserves_typing_frag2 : forall f a,
  frag2t_prog f = true -> wt_fs f = true -> unique_binders f = true -> ids_bounded f = true ->
  shrink_prog f = SOk a ->
  AxCheck.wt_ax a = true /\ pre_linear_prog a = true /\ binders_ok a = true.
Proof.
  intros f a Hfr WF UB IB EA. unfold frag2t_prog in Hfr. apply andb_prop in Hfr as [Hfr Hg]. apply andb_prop in Hfr as [Hn Hd].
  destruct (shrink_typing_fragment2 f a Hn Hd WF UB IB EA) as [CK PL].
  split; [unfold AxCheck.wt_ax; now rewrite CK|]. split; [exact PL|]. eapply shrink_binders_ok; eauto.
Qed.

(* the unguarded statement is false: a parameter of an undeclared type *)
Definition undeclared_param_witness : fsprog :=
  mkfsp [mkfsd ("f"%string, 0%N) [mkcb ("u"%string, 1%N) CPrd (CDecl ("Foo"%string, 0%N)); mkcb ("y"%string, 2%N) CPrd CI64]
               (FsExit ("y"%string, 2%N))] [] [] 2%N.
Lemma shrink_typing_unguarded_refuted :
  exists f a, wt_fs f = true /\ unique_binders f = true /\ ids_bounded f = true /\ shrink_prog f = SOk a /\
              AxCheck.wt_ax a = false /\ frag2t_prog f = false.
Proof.
  exists undeclared_param_witness. eexists.
  do 4 (split; [vm_compute; reflexivity|]). split; vm_compute; reflexivity.
Qed.

(* the C12 composition with the shrink link discharged on the fragment *)
Lemma pipeline_wt_fragment2_lemma :
  H_fun2core_wt -> H_focus_wt ->
  forall src p, Check.check src = COk p -> barendregt p = true ->
  (forall c f, compile_prog p = Fun2Core.Ok c -> focus_prog c = Backend.Ok f -> frag2t_prog f = true) ->
  exists c f a,
    compile_prog p = Fun2Core.Ok c /\ wt_core c = true /\
    focus_prog c = Backend.Ok f /\ wt_fs f = true /\
    shrink_prog f = SOk a /\ AxCheck.wt_ax a = true /\ prog_ok a = true /\
    let l := linearize a in
    lin_check_prog l = true /\
    (forall lc, within_capacity_x86 l = true -> exists code lc', x86_compile l lc = Backend.Ok (code, main_arity l, lc')) /\
    (forall lc, within_capacity_a64 l = true -> exists code lc', a64_compile l lc = Backend.Ok (code, main_arity l, lc')) /\
    (forall lc, within_capacity_rv l = true -> exists code lc', rv_compile l lc = Backend.Ok (code, main_arity l, lc')).
Proof.
  intros HF HFo src p CK BA HFR.
  destruct (HF src p CK BA) as (c & EC & WC & PC).
  destruct (focus_total_wt c WC) as [f EF].
  destruct (HFo c f WC PC EF) as (WF & UB & IB).
  destruct (shrink_total f WF) as [a EA].
  destruct (shrink_preserves_typing_frag2 f a (HFR c f EC EF) WF UB IB EA) as (WA & PL & BO).
  exists c, f, a.
  split; [exact EC|]. split; [exact WC|]. split; [exact EF|]. split; [exact WF|].
  split; [exact EA|]. split; [exact WA|]. exact (wt_ax_backends_total a WA PL BO).
Qed.

(* non-vacuity on the real program of Proof/ShrinkExample2.v *)
Example frag2t_example_ok :
  match frag2_focused with
  | Some p =>
      match shrink_prog p with
      | SOk q => frag2t_prog p && decls_ok p && wt_fs p && unique_binders p && ids_bounded p
                 && AxCheck.wt_ax q && pre_linear_prog q && binders_ok q && prog_ok q
                 && Nat.eqb (List.length (filter (fun d => AxCheck.is_lifted_name (dname d)) (pdefs q))) 2
      | SErr _ => false
      end
  | None => false
  end = true.
Proof. vm_compute. reflexivity. Qed.
