(* C19: one Core measure with a parameter, so that the size theorems about passes that produce or
   rename Core (fun2core, uniquify) are proved once and read off for both measures in use:
     cz k = one per term / statement / clause node  +  k per entry of a clause context
     cz 0 = size_cterm / size_cstmt (Lang/CoreSyn.v),   cz 1 = c_wterm / c_wstmt (Lang/CoreSize.v). *)
From Coq Require Import List NArith Lia.
From SCC Require Import Base.Sexp Lang.SynUtil Lang.CoreSyn Lang.SynInd Lang.AxSize Lang.CoreSize.
Import ListNotations.
Open Scope N_scope.
Local Arguments N.add : simpl never.
Local Arguments N.mul : simpl never.
Local Arguments len : simpl never.

Fixpoint cz_term (k : N) (t : cterm) {struct t} : N :=
  match t with
  | CXVar _ _ _ => 1
  | CLit _ => 1
  | COp a _ b => 1 + cz_term k a + cz_term k b
  | CMu _ _ s _ => 1 + cz_stmt k s
  | CXtor _ _ args _ =>
      1 + (fix go (l : list carg) : N := match l with [] => 0 | y :: r => cz_arg k y + go r end) args
  | CXCase _ cls _ =>
      1 + (fix go (l : list cclause) : N := match l with [] => 0 | y :: r => cz_clause k y + go r end) cls
  end
with cz_arg (k : N) (a : carg) {struct a} : N :=
  match a with CProducer p => cz_term k p | CConsumer q => cz_term k q end
with cz_clause (k : N) (c : cclause) {struct c} : N :=
  match c with CClause _ _ cx body => 1 + k * len cx + cz_stmt k body end
with cz_stmt (k : N) (s : cstmt) {struct s} : N :=
  match s with
  | CCut p _ q => 1 + cz_term k p + cz_term k q
  | CIfC _ a b t e =>
      1 + cz_term k a + match b with Some b' => cz_term k b' | None => 0 end + cz_stmt k t + cz_stmt k e
  | CPrint _ a next => 1 + cz_term k a + cz_stmt k next
  | CCall _ args _ =>
      1 + (fix go (l : list carg) : N := match l with [] => 0 | y :: r => cz_arg k y + go r end) args
  | CExit a _ => 1 + cz_term k a
  end.

Section CZ.
  Variable k : N.
  Notation cz_term := (cz_term k).
  Notation cz_arg := (cz_arg k).
  Notation cz_clause := (cz_clause k).
  Notation cz_stmt := (cz_stmt k).
  Fixpoint cz_args (l : list carg) : N := match l with [] => 0 | y :: r => cz_arg y + cz_args r end.
  Fixpoint cz_clauses (l : list cclause) : N := match l with [] => 0 | y :: r => cz_clause y + cz_clauses r end.
  Definition cz_def (d : cdef) : N := 1 + k * len (cdctx d) + cz_stmt (cdbody d).
  Fixpoint cz_defs (ds : list cdef) : N := match ds with [] => 0 | d :: r => cz_def d + cz_defs r end.

  Lemma cz_term_xtor : forall c x args t, cz_term (CXtor c x args t) = 1 + cz_args args.
  Proof. intros; simpl; f_equal; induction args as [|y r IH]; simpl; auto; rewrite IH; auto. Qed.
  Lemma cz_term_xcase : forall c cls t, cz_term (CXCase c cls t) = 1 + cz_clauses cls.
  Proof. intros; simpl; f_equal; induction cls as [|y r IH]; simpl; auto; rewrite IH; auto. Qed.
  Lemma cz_stmt_call : forall f args t, cz_stmt (CCall f args t) = 1 + cz_args args.
  Proof. intros; simpl; f_equal; induction args as [|y r IH]; simpl; auto; rewrite IH; auto. Qed.
  Lemma cz_args_app : forall a b, cz_args (a ++ b) = cz_args a + cz_args b.
  Proof. induction a as [|y r IH]; intros b; simpl; [reflexivity | rewrite IH; lia]. Qed.
  Lemma cz_defs_app : forall a b, cz_defs (a ++ b) = cz_defs a + cz_defs b.
  Proof. induction a as [|y r IH]; intros b; simpl; [reflexivity | rewrite IH; lia]. Qed.
  Lemma cz_defs_rev_append : forall a b, cz_defs (rev_append a b) = cz_defs a + cz_defs b.
  Proof. induction a as [|y r IH]; intros b; cbn [rev_append cz_defs]; [lia | rewrite IH; cbn [cz_defs]; lia]. Qed.
  Lemma cz_term_pos : forall t, 1 <= cz_term t.
  Proof. destruct t; cbn [cz_term]; rewrite <- ?N.add_assoc; try apply N.le_add_r; lia. Qed.
  Lemma cz_stmt_pos : forall s, 1 <= cz_stmt s.
  Proof. destruct s; cbn [cz_stmt]; rewrite <- ?N.add_assoc; try apply N.le_add_r; lia. Qed.
End CZ.

Ltac sz := cbn [cz_term cz_arg cz_clause cz_stmt size_cterm size_carg size_cclause size_cstmt c_wterm c_warg c_wclause c_wstmt cz_defs c_wdefs].
(* the two instances.  cz k and either concrete measure unfold alike, constructor by constructor; the only difference
   is the factor k of a clause context, 0 * n or 1 * n *)
Ltac cz_instance :=
  apply cterm_mutind;
  [ reflexivity
  | reflexivity
  | intros a o b Ha Hb; sz; rewrite Ha, Hb; reflexivity
  | intros c v s t Hs; sz; rewrite Hs; reflexivity
  | intros c x args t H; sz; f_equal; induction H as [|y r Hy Hr IH]; [reflexivity | rewrite Hy, IH; reflexivity]
  | intros c cls t H; sz; f_equal; induction H as [|y r Hy Hr IH]; [reflexivity | rewrite Hy, IH; reflexivity]
  | intros p Hp; exact Hp
  | intros p Hp; exact Hp
  | intros c x ctx body Hb; sz; rewrite Hb, ?N.mul_1_l; reflexivity
  | intros p t q Hp Hq; sz; rewrite Hp, Hq; reflexivity
  | intros so a b t e Ha Hb Ht He; sz; rewrite Ha, Ht, He; destruct b as [b'|]; [rewrite (Hb b' eq_refl)|]; reflexivity
  | intros nl a next Ha Hn; sz; rewrite Ha, Hn; reflexivity
  | intros f args t H; sz; f_equal; induction H as [|y r Hy Hr IH]; [reflexivity | rewrite Hy, IH; reflexivity]
  | intros a t Ha; sz; rewrite Ha; reflexivity ].
Lemma cz0_all :
  (forall t, cz_term 0 t = size_cterm t) /\ (forall a, cz_arg 0 a = size_carg a) /\
  (forall c, cz_clause 0 c = size_cclause c) /\ (forall s, cz_stmt 0 s = size_cstmt s).
Proof. cz_instance. Qed.
Lemma cz1_all :
  (forall t, cz_term 1 t = c_wterm t) /\ (forall a, cz_arg 1 a = c_warg a) /\
  (forall c, cz_clause 1 c = c_wclause c) /\ (forall s, cz_stmt 1 s = c_wstmt s).
Proof. cz_instance. Qed.

Lemma sum_sizes_acc : forall {X} (f : X -> N) l a, fold_left (fun acc x => acc + f x) l a = a + sum_sizes f l.
Proof.
  intros X f l. unfold sum_sizes. induction l as [|x r IH]; intros a; cbn [fold_left]; [lia|].
  rewrite IH, (IH (0 + f x)). lia.
Qed.
Lemma sum_sizes_cons : forall {X} (f : X -> N) x l, sum_sizes f (x :: l) = f x + sum_sizes f l.
Proof. intros. unfold sum_sizes at 1. cbn [fold_left]. rewrite sum_sizes_acc. lia. Qed.

Lemma cz0_defs : forall ds, cz_defs 0 ds = sum_sizes size_cdef ds.
Proof.
  induction ds as [|d r IH]; [reflexivity|]. rewrite sum_sizes_cons. sz. rewrite IH. unfold cz_def, size_cdef.
  rewrite (proj2 (proj2 (proj2 cz0_all))). lia.
Qed.
Lemma cz1_defs : forall ds, cz_defs 1 ds = c_wdefs ds.
Proof.
  induction ds as [|d r IH]; [reflexivity|]. sz. rewrite IH. unfold cz_def, c_wdef.
  rewrite (proj2 (proj2 (proj2 cz1_all))). lia.
Qed.
Lemma cz0_prog : forall p, cz_defs 0 (cpdefs p) = size_cprog p.
Proof. intros p. apply cz0_defs. Qed.
Lemma cz1_prog : forall p, cz_defs 1 (cpdefs p) = c_wprog p.
Proof. intros p. apply cz1_defs. Qed.

(* the node count is below the weighted size *)
Lemma cz_mono_all : forall k,
  (forall t, cz_term 0 t <= cz_term k t) /\ (forall a, cz_arg 0 a <= cz_arg k a) /\
  (forall c, cz_clause 0 c <= cz_clause k c) /\ (forall s, cz_stmt 0 s <= cz_stmt k s).
Proof.
  intros k. apply cterm_mutind.
  - sz; lia.
  - sz; lia.
  - intros a o b Ha Hb. sz. lia.
  - intros c v s t Hs. sz. lia.
  - intros c x args t H. sz. apply N.add_le_mono_l. induction H as [|y r Hy Hr IH]; lia.
  - intros c cls t H. sz. apply N.add_le_mono_l. induction H as [|y r Hy Hr IH]; lia.
  - intros p Hp. exact Hp.
  - intros p Hp. exact Hp.
  - intros c x ctx body Hb. sz. rewrite N.mul_0_l. generalize (k * len ctx). intros z. lia.
  - intros p t q Hp Hq. sz. lia.
  - intros so a b t e Ha Hb Ht He. sz. destruct b as [b'|]; [pose proof (Hb b' eq_refl) as Hb'; cbv beta in Hb'|]; lia.
  - intros nl a next Ha Hn. sz. lia.
  - intros f args t H. sz. apply N.add_le_mono_l. induction H as [|y r Hy Hr IH]; lia.
  - intros a t Ha. sz. lia.
Qed.
Lemma size_le_cw_prog : forall p, size_cprog p <= c_wprog p.
Proof.
  intros p. rewrite <- cz0_prog, <- cz1_prog. induction (cpdefs p) as [|d r IH]; sz; [lia|].
  unfold cz_def. pose proof (proj2 (proj2 (proj2 (cz_mono_all 1))) (cdbody d)). lia.
Qed.
