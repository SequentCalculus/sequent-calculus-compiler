(* `a_store` of any number of variables (objects chained over several blocks, axcut2aarch64 memory.rs store_fields)
   refines `Heap.alloc_object` on the AArch64 ISA semantics: the data and pointer words of every stored variable,
   addressed through the chain, the chain = the acquired blocks, the frame for the other heap words and for the stack.
   One round of store_fields is (link,) values, acquire_block = one `Heap.alloc` (a64_store_block_m); the continuation
   blocks go by induction (a64_store_fields_other), the first round comes before them (a64_store_rounds).  What rounds
   establish is `store_frame` (abstraction and frames) and `store_chain` (the chain of the object).
   hdr64 / chain_hdr64 / alloc_object_hdr64 are the extra AArch64 precondition: the header of the block reserved in the
   HEAP register is a 64-bit value at every allocation of the chain (acquire_block tests it with CMP #0 on the wrapped
   value; `acq_ok` does not bound it).
   The abstract side is the one of x86-64, under qualified names (Proof/X86MemStoreChain.v, X86HeapAcq.v, X86HeapDefs.v,
   X86MemStoreFull.v, X86MemLoadChain.v). *)
From Coq Require Import List ZArith NArith String Bool Lia FMapPositive.
From SCC Require Import Base.Sexp Lang.AxSyn Sem.AxSem Model.Backend Model.A64 Sem.A64Sem Generated.Constants
     Proof.A64State Proof.A64ImmHw Proof.A64Imm Proof.A64Sel Proof.A64Exec Proof.A64MemSubst Proof.A64Mem Proof.A64MemOps
     Proof.A64MemStore Proof.A64MemTop.
From SCC Require Model.Heap Model.X86 Sem.X86Sem Proof.X86Mem Proof.X86MemFrame Proof.X86MemStore Proof.X86MemStoreChain
     Proof.X86MemLoadChain Proof.X86HeapDefs Proof.X86HeapAcq Proof.X86MemStoreFull.
Import ListNotations.
Open Scope list_scope.
Open Scope Z_scope.

Notation acq_ok := X86MemStoreChain.acq_ok.
Notation chain_pre := X86MemStoreChain.chain_pre.
Notation alloc_object_pre := X86MemStoreChain.alloc_object_pre.
Notation rest_len := X86MemStoreChain.rest_len.
Notation chain_acq := X86HeapAcq.chain_acq.
Notation alloc_object_acq := X86HeapAcq.alloc_object_acq.
Notation wblocks := X86HeapDefs.wblocks.
Notation waddrs := X86HeapDefs.waddrs.
Notation blk_words := X86MemStoreFull.blk_words.
Notation chain_holds := X86MemStoreFull.chain_holds.
Notation nbo := X86MemLoadChain.nbo.
Notation st_eqB_trans := X86Mem.st_eqB_trans.
Notation st_eqB_sym := X86Mem.st_eqB_sym.
Notation st_eqB_refl := X86Mem.st_eqB_refl.

Definition hdr64 (a : Heap.st) : Prop := min_int <= Heap.hdr (Heap.m a (Heap.heap a)) <= max_int.

Fixpoint chain_hdr64 (fuel : nat) (rest : list Z) (link : Z) (a : Heap.st) : Prop :=
  match fuel with
  | O => True
  | S f =>
      match rest with
      | [] => True
      | _ => hdr64 a /\
             chain_hdr64 f (Heap.butlastn 2 rest) (fst (Heap.alloc (Heap.pad 2 (Heap.lastn 2 rest) ++ [link]) a))
                         (snd (Heap.alloc (Heap.pad 2 (Heap.lastn 2 rest) ++ [link]) a))
      end
  end.
Definition alloc_object_hdr64 (fields : list Z) (a : Heap.st) : Prop :=
  match fields with
  | [] => True
  | _ => hdr64 a /\
         chain_hdr64 (List.length fields) (Heap.butlastn 3 fields) (fst (Heap.alloc (Heap.pad 3 (Heap.lastn 3 fields)) a))
                     (snd (Heap.alloc (Heap.pad 3 (Heap.lastn 3 fields)) a))
  end.

Lemma hdr64_eqB a b : st_eqB a b -> is_blk (Heap.heap a) -> hdr64 a -> hdr64 b.
Proof. intros (E1 & _ & _ & E4) Hb H. unfold hdr64 in *. now rewrite <- E1, <- (E4 _ Hb). Qed.

Lemma chain_hdr64_congr : forall f rest link a b,
  st_eqB a b -> chain_pre f rest link a -> chain_hdr64 f rest link a -> chain_hdr64 f rest link b.
Proof.
  induction f as [|f IH]; intros rest link a b E Pre H; [exact I|].
  destruct rest as [|x r]; [exact I|].
  cbn [X86MemStoreChain.chain_pre chain_hdr64] in *. destruct Pre as [A Pre]. destruct H as [H64 H].
  destruct (X86MemStoreChain.alloc_congr a b (Heap.pad 2 (Heap.lastn 2 (x :: r)) ++ [link]) E A) as [Ef Es].
  rewrite <- Ef. split; [eapply hdr64_eqB; [exact E|apply A|exact H64]|]. eapply IH; eassumption.
Qed.

(* the precondition of acquire_block on the machine state *)
Lemma acq_ok_machine F s :
  acq_ok (abs_heap F s) ->
  exists rv h2, rget s HEAP = Some rv /\ is_blk rv /\ rget s FREE = Some h2 /\
    (hword s rv = 0 -> is_blk h2) /\
    (hword s rv = 0 -> hword s h2 <> 0 ->
       (forall off, off = 16 \/ off = 32 \/ off = 48 -> hword s (h2 + off) = 0 \/ is_blk (hword s (h2 + off))) /\
       bounded 3 s (hword s h2)).
Proof.
  intros (A1 & A2 & A3 & A4). cbn [abs_heap Heap.heap Heap.free Heap.m] in *.
  unfold reg_or0 in *.
  destruct (rget s HEAP) as [rv|] eqn:RH; [|apply is_blk_pos in A1; lia].
  destruct (rget s FREE) as [h2|] eqn:RF; [|contradiction].
  exists rv, h2. split; [reflexivity|]. split; [exact A1|]. split; [reflexivity|]. split; [exact A3|].
  intros H0 Hn0. destruct (A4 H0 Hn0) as (K & B1 & B2). cbn [abs_mem Heap.ps Heap.hdr] in *. split; [|split; [exact B1|exact B2]].
  inversion K as [|? ? K1 K']; subst. inversion K' as [|? ? K2 K'']; subst. inversion K'' as [|? ? K3 _]; subst.
  intros off [->|[->| ->]]; assumption.
Qed.

(* What rounds of store_fields establish between the states s and s', apart from the words of the object: `res` is
   the result of the abstract allocation, `acq` the blocks it acquires, E the number of variables that stay in place.
   One round is the case acq = [the reserved block]; rounds compose (store_frame_trans). *)
Definition store_frame (s s' : astate) (sp : Z) (E : nat) (acq : list Z) (res : Z * Heap.st) : Prop :=
  st_eqB (abs_heap (Heap.frontier (snd res)) s') (snd res) /\
  lget s' sp (tpos (2 * N.of_nat E)) = Some (fst res) /\
  (forall k, (k < 2 * N.of_nat E)%N -> lget s' sp (tpos k) = lget s sp (tpos k)) /\
  out s' = out s /\ frame_ok s' sp /\
  (forall a, ~ is_blk a -> (forall b, In b acq -> a < b \/ b + 64 <= a) -> hword s' a = hword s a) /\
  stack_frame s s' sp.

Lemma store_frame_trans s s1 s2 sp E1 E acq1 acq2 res1 res2 :
  (E <= E1)%nat -> store_frame s s1 sp E1 acq1 res1 -> store_frame s1 s2 sp E acq2 res2 ->
  store_frame s s2 sp E (acq1 ++ acq2) res2.
Proof.
  intros HE (_ & _ & T1 & O1 & _ & H1 & S1) (Q & R & T2 & O2 & FR & H2 & S2).
  split; [exact Q|]. split; [exact R|]. split; [|split; [congruence|split; [exact FR|split]]].
  - intros k Hk. rewrite T2 by exact Hk. apply T1. lia.
  - intros a Ha Hout. rewrite H2, H1; auto; intros b Hb; apply Hout, in_or_app; auto.
  - eapply stack_frame_trans; eassumption.
Qed.

Lemma store_frame_eqB s s' sp E acq res res' :
  fst res' = fst res -> st_eqB (snd res') (snd res) -> store_frame s s' sp E acq res -> store_frame s s' sp E acq res'.
Proof.
  intros Ef Es (Q & R & T). split; [|split; [rewrite Ef; exact R|exact T]].
  destruct Es as (X1 & X2 & X3 & X4). rewrite X3. eapply st_eqB_trans; [exact Q|]. apply st_eqB_sym. repeat split; assumption.
Qed.

(* the variables left for the further blocks are still in place after a round *)
Lemma vals_ok_firstn s s' sp val E r bs acq res :
  store_frame s s' sp (E + r) acq res -> vals_ok s sp val E bs -> vals_ok s' sp val E (firstn r bs).
Proof.
  intros (_ & _ & Same & _) V i b Hi.
  assert (Hir : (i < r)%nat).
  { apply Nat.lt_le_trans with (List.length (firstn r bs)); [apply nth_error_Some; congruence|apply firstn_le_length]. }
  assert (Hin : nth_error bs i = Some b).
  { rewrite <- (firstn_skipn r bs), nth_error_app1; [exact Hi|apply nth_error_Some; congruence]. }
  rewrite !Same by lia. exact (V i b Hin).
Qed.

(* The chain of the object after the continuation blocks, if the acquired blocks are pairwise different and different
   from the blocks bl written before (a chain of kk links headed by `link`, holding `done`): p heads the new chain. *)
Definition store_chain (s s' : astate) (val : N -> Z) (E : nat) (to_store : ctx) (link : Z) (acq : list Z) (p : Z) : Prop :=
  forall done kk,
    let bl := wblocks kk (hword s) link in
    let K := (kk + nbo (List.length to_store))%nat in
    NoDup acq -> Forall is_blk bl -> (forall b, In b acq -> ~ In b bl) ->
    chain_holds (hword s) val (E + List.length to_store) done kk link ->
    (to_store <> [] -> List.length done = (2 * kk + 3)%nat) ->
    wblocks K (hword s') p = rev acq ++ bl /\
    Forall is_blk (rev acq ++ bl) /\
    chain_holds (hword s') val E (to_store ++ done) K p.

Lemma butlastn_fsts val E bs c : Heap.butlastn c (fsts val E bs) = fsts val E (firstn (List.length bs - c) bs).
Proof. unfold Heap.butlastn. now rewrite X86MemStore.fsts_length, X86MemStoreChain.fsts_firstn. Qed.

Section Chain.
Variable im : image.

Definition link_code (bp : block_position) (remaining to_store : ctx) : res (list acode) :=
  match bp with Other => store_field Fst (remaining ++ to_store) HEAP (FIELDS_PER_BLOCK - 1) | Last => Ok [] end.

Lemma store_fields_unfold fuel to_store remaining bp lc cs lc' :
  to_store <> [] -> store_fields (S fuel) to_store remaining bp lc = Ok (cs, lc') ->
  let rl := rest_len (List.length to_store) (3 - bp_n bp) in
  let k := (2 * N.of_nat (List.length (remaining ++ firstn rl to_store)))%N in
  exists c0 sv c3,
    link_code bp remaining to_store = Ok c0 /\
    store_values (rev (skipn rl to_store)) (remaining ++ firstn rl to_store) HEAP (3 - bp_n bp) = Ok sv /\
    (k < MAXPOS)%N /\
    store_fields fuel (firstn rl to_store) remaining Other (snd (acquire_block (tpos k) lc)) = Ok (c3, lc') /\
    cs = c0 ++ sv ++ fst (acquire_block (tpos k) lc) ++ c3.
Proof.
  intros Hne H rl k. cbn [store_fields] in H. destruct to_store as [|x r]; [contradiction|].
  change (FIELDS_PER_BLOCK - bp_n bp)%N with (3 - bp_n bp)%N in H.
  fold (X86MemStoreChain.rest_len (List.length (x :: r)) (3 - bp_n bp)) in H. fold rl in H.
  fold (link_code bp remaining (x :: r)) in H.
  destruct (link_code bp remaining (x :: r)) as [c0|] eqn:E0; [|discriminate]. cbn [rbind] in H.
  destruct (store_values (rev (skipn rl (x :: r))) (remaining ++ firstn rl (x :: r)) HEAP (3 - bp_n bp)) as [sv|] eqn:Esv; [|discriminate].
  cbn [rbind] in H.
  destruct (a_fresh Fst (remaining ++ firstn rl (x :: r))) as [t|] eqn:Et; [|discriminate]. cbn [rbind] in H.
  apply a_fresh_tpos in Et as [-> Hk]. cbn [tnum_n] in *. rewrite N.add_0_r in *. fold k in H, Hk.
  destruct (acquire_block (tpos k) lc) as [c2 lc2] eqn:EA.
  destruct (store_fields fuel (firstn rl (x :: r)) remaining Other lc2) as [[c3 lc3]|] eqn:E3; [|discriminate]. cbn [rbind] in H.
  inversion H; subst. exists c0, sv, c3. cbn [fst snd]. auto.
Qed.

Lemma a64_store_block_m pos bp to_store remaining lc c0 sv s sp F val link rv h2 :
  let E := List.length remaining in
  let n := List.length to_store in
  let cap := (3 - bp_n bp)%N in
  let rl := rest_len n cap in
  let k := (2 * N.of_nat (E + rl))%N in
  let acq := fst (acquire_block (tpos k) lc) in
  link_code bp remaining to_store = Ok c0 ->
  store_values (rev (skipn rl to_store)) (remaining ++ firstn rl to_store) HEAP cap = Ok sv ->
  (k < MAXPOS)%N ->
  code_at im pos (c0 ++ sv ++ acq) -> labels_at im pos (c0 ++ sv ++ acq) ->
  frame_ok s sp -> vals_ok s sp val E to_store ->
  (bp = Other -> lget s sp (tpos (2 * N.of_nat (E + n))) = Some link) ->
  rget s HEAP = Some rv -> is_blk rv -> rget s FREE = Some h2 ->
  min_int <= hword s rv <= max_int ->
  (hword s rv = 0 -> is_blk h2) ->
  (hword s rv = 0 -> hword s h2 <> 0 ->
     (forall off, off = 16 \/ off = 32 \/ off = 48 -> hword s (h2 + off) = 0 \/ is_blk (hword s (h2 + off))) /\
     bounded 3 s (hword s h2)) ->
  let P := Heap.pad (N.to_nat cap) (Heap.lastn (N.to_nat cap) (fsts val E to_store)) ++ (match bp with Other => [link] | Last => [] end) in
  let res := Heap.alloc P (abs_heap F s) in
  exists s', exec_to im pos s (padd pos (List.length (c0 ++ sv ++ acq))) s' /\
    store_frame s s' sp (E + rl) [rv] res /\ fst res = rv /\
    blk_words (hword s') val (E + rl) (skipn rl to_store) rv (N.to_nat cap) /\
    (bp = Other -> hword s' (rv + 48) = link) /\
    (forall k', (k' < MAXPOS)%N -> k' <> k -> lget s' sp (tpos k') = lget s sp (tpos k')).
Proof.
  intros E n cap rl k acq Hc0 Hsv Hk HC HL FR V Hlink R Hb Rf I64 Hb2 Hch P res.
  assert (Hcap : (cap = 3 \/ cap = 2)%N) by (unfold cap; destruct bp; cbn; auto).
  assert (Hrl : rl = (n - N.to_nat cap)%nat) by apply X86MemStoreChain.rest_len_val.
  assert (Hrln : (rl <= n)%nat) by lia.
  assert (Lfirst : List.length (firstn rl to_store) = rl) by (rewrite firstn_length; fold n; lia).
  assert (Lnext : List.length (skipn rl to_store) = (n - rl)%nat) by (rewrite skipn_length; reflexivity).
  assert (Hlen : (N.of_nat (List.length (skipn rl to_store)) <= cap)%N) by (rewrite Lnext; lia).
  assert (Lrr : List.length (remaining ++ firstn rl to_store) = (E + rl)%nat) by (rewrite app_length, Lfirst; reflexivity).
  apply code_at_app2 in HC as [HC0 HC]. apply labels_at_app2 in HL as [_ HL].
  apply code_at_app2 in HC as [HC1 HC2]. apply labels_at_app2 in HL as [_ HL2].
  (* the link *)
  assert (S0 : exists s0, exec_to im pos s (padd pos (List.length c0)) s0 /\ sbt s s0 /\
            (forall a, hword s0 a = if (match bp with Other => true | Last => false end) && (a =? rv + 48) then link else hword s a)).
  { destruct bp; cbn [link_code] in Hc0.
    - inversion Hc0; subst c0. exists s. split; [apply exec_refl|]. split; [apply sbt_refl|]. reflexivity.
    - change (FIELDS_PER_BLOCK - 1)%N with 2%N in Hc0. apply store_field_shape in Hc0 as [K0 ->].
      rewrite app_length in *. cbn [tnum_n] in *. rewrite N.add_0_r in *. fold E n in K0, HC0 |- *.
      destruct (a64_store_field_code_ok im pos _ HEAP _ s sp link rv HC0 FR (tpos_loc_ok _ K0) (Hlink eq_refl) I ltac:(discriminate) R)
        as (s0 & ST0 & SB0 & W0).
      { apply field_addr; auto. lia. }
      exists s0. split; [exact ST0|]. split; [exact SB0|]. intros a. rewrite W0. rewrite fo_F2. reflexivity. }
  destruct S0 as (s0 & ST0 & SB0 & W0).
  assert (FR0 : frame_ok s0 sp) by (eapply sbt_frame; eauto).
  assert (R0 : rget s0 HEAP = Some rv) by (destruct SB0 as (A & _); rewrite A by discriminate; exact R).
  assert (W0' : forall a, a <> rv + 48 -> hword s0 a = hword s a).
  { intros a Ha. rewrite W0. destruct (Z.eqb_spec a (rv + 48)); [contradiction|]. now rewrite andb_false_r. }
  (* the values *)
  assert (V0 : vals_ok s0 sp val (E + rl) (skipn rl to_store)).
  { eapply vals_ok_same; [exact SB0|]. rewrite <- Lfirst at 1. apply (vals_ok_app_r s sp val E (firstn rl to_store)).
    now rewrite firstn_skipn. }
  rewrite <- Lrr in V0.
  destruct (a64_store_values_ok im _ (skipn rl to_store) (remaining ++ firstn rl to_store) cap sv s0 sp rv F val Hsv Hcap Hlen HC1 FR0 R0 Hb V0) as (s1 & ST1 & SB1 & St & EQ1).
  rewrite Lrr in St, EQ1.
  assert (Hff : (cap <= 3)%N) by (destruct Hcap as [-> | ->]; lia).
  assert (SB01 : sbt s s1) by (eapply sbt_trans; eassumption).
  assert (FR1 : frame_ok s1 sp) by (eapply sbt_frame; eauto).
  assert (R1 : rget s1 HEAP = Some rv) by (destruct SB01 as (A & _); rewrite A by discriminate; exact R).
  assert (Rf1 : rget s1 FREE = Some h2) by (destruct SB01 as (A & _); rewrite A by discriminate; exact Rf).
  assert (Hdr : forall x, is_blk x -> hword s1 x = hword s x).
  { intros x Hx. rewrite (X86MemStore.stored_blk_hdr _ _ _ _ _ _ _ x St Hff Hb Hx). apply W0'.
    destruct (Z.eq_dec x rv) as [->|Hne']; [lia|]. destruct (X86MemFrame.is_blk_apart x rv Hx Hb Hne'); lia. }
  assert (Hoth : forall x i, is_blk x -> x <> rv -> 0 <= i < 64 -> hword s1 (x + i) = hword s (x + i)).
  { intros x i Hx Hne' Hi. rewrite (X86MemStore.stored_other_blk _ _ _ _ _ _ _ x i St Hff Hb Hx Hne' Hi). apply W0'.
    destruct (X86MemFrame.is_blk_apart x rv Hx Hb Hne'); lia. }
  assert (I641 : min_int <= hword s1 rv <= max_int) by (rewrite Hdr by auto; exact I64).
  assert (Hb21 : hword s1 rv = 0 -> is_blk h2) by (rewrite Hdr by auto; exact Hb2).
  assert (Hch1 : hword s1 rv = 0 -> hword s1 h2 <> 0 ->
     (forall off, off = 16 \/ off = 32 \/ off = 48 -> hword s1 (h2 + off) = 0 \/ is_blk (hword s1 (h2 + off))) /\
     bounded 3 s1 (hword s1 h2)).
  { intros H0 Hn0. pose proof (Hb21 H0) as Hbh2.
    assert (Hne' : h2 <> rv) by (intros ->; contradiction).
    rewrite Hdr in H0, Hn0 by auto. destruct (Hch H0 Hn0) as [Kids [B1 B2]]. split.
    - intros off Hoff. rewrite Hoth by (auto; lia). now apply Kids.
    - rewrite Hdr by auto. split; [|exact B2]. intros x Hx. rewrite Hdr by auto. now apply B1. }
  fold k in HC2, HL2.
  destruct (a64_acquire_block_tpos_ok im _ k lc s1 sp rv h2 F Hk HC2 HL2 FR1 R1 Hb Rf1 I641 Hb21 Hch1)
    as (s2 & ST2 & EQ2 & Rr & Ef & Oth & Out & FR2 & NB & SF2).
  (* the abstract side *)
  assert (RH : reg_or0 s HEAP = rv) by (unfold reg_or0; now rewrite R).
  assert (RF : reg_or0 s FREE = h2) by (unfold reg_or0; now rewrite Rf).
  assert (RH0 : reg_or0 s0 HEAP = rv) by (unfold reg_or0; now rewrite R0).
  assert (RF0 : reg_or0 s0 FREE = h2) by (unfold reg_or0; destruct SB0 as (A & _); rewrite A by discriminate; now rewrite Rf).
  assert (EP : Heap.pad (N.to_nat cap) (fsts val (E + rl) (skipn rl to_store)) ++ link_slot cap (hword s0) rv = P).
  { unfold P. f_equal.
    - f_equal. rewrite X86MemStoreChain.fsts_skipn by (fold n; lia). unfold Heap.lastn. rewrite X86MemStore.fsts_length. fold n. now rewrite Hrl.
    - unfold X86MemStore.link_slot, cap. destruct bp; cbn [bp_n N.sub N.eqb Pos.eqb]; [reflexivity|].
      rewrite W0, Z.eqb_refl. reflexivity. }
  rewrite EP, RH0, RF0 in EQ1.
  set (A := {| Heap.m := Heap.set_ps (abs_mem s) rv P; Heap.heap := rv; Heap.free := h2; Heap.frontier := F |}).
  assert (Eres : res = Heap.acquire A).
  { unfold res, Heap.alloc, A. cbn [abs_heap Heap.m Heap.heap Heap.free Heap.frontier]. now rewrite RH, RF. }
  assert (EQ1' : st_eqB (abs_heap F s1) A).
  { eapply st_eqB_trans; [exact EQ1|]. split; [reflexivity|]. split; [reflexivity|]. split; [reflexivity|].
    intros x Hx. unfold A. cbn [Heap.m]. unfold Heap.set_ps, Heap.upd.
    destruct (Z.eqb_spec x rv) as [->|Hne'].
    - unfold abs_mem. cbn [Heap.hdr]. rewrite W0' by lia. reflexivity.
    - unfold abs_mem. destruct (X86MemFrame.is_blk_apart x rv Hx Hb Hne'); rewrite !W0' by lia; reflexivity. }
  destruct (X86MemFrame.acquire_st_eqB (abs_heap F s1) A EQ1') as [Efst Esnd].
  { cbn [abs_heap Heap.heap]. unfold reg_or0. now rewrite R1. }
  { cbn [abs_heap Heap.heap Heap.free Heap.m]. unfold reg_or0. rewrite R1, Rf1. exact Hb21. }
  { cbn [abs_heap Heap.heap Heap.free Heap.m]. unfold reg_or0. rewrite R1, Rf1. intros H0 Hn0.
    destruct (Hch1 H0 Hn0) as [Kids _]. cbn [abs_mem Heap.ps]. repeat (apply Forall_cons; [apply Kids; auto|]). apply Forall_nil. }
  assert (EFr : Heap.frontier (snd (Heap.acquire (abs_heap F s1))) = Heap.frontier (snd (Heap.acquire A)))
    by (destruct Esnd as (_ & _ & X & _); exact X).
  clearbody res. subst res.
  destruct (X86MemStoreFull.stored_blk_words _ _ _ _ _ _ _ Hlen St) as [B1 B2]. destruct St as (_ & _ & S3).
  assert (Oth' : forall k', (k' < MAXPOS)%N -> k' <> k -> lget s2 sp (tpos k') = lget s sp (tpos k')).
  { intros k' Hk' Hne'. rewrite Oth.
    - apply sbt_tpos. exact SB01.
    - now apply tpos_loc_ok.
    - intro Eq. apply tpos_inj in Eq. contradiction.
    - apply tpos_not_reserved.
    - apply tpos_not_reserved.
    - apply tpos_not_reserved.
    - apply tpos_not_reserved. }
  exists s2. split; [|split; [|split; [rewrite <- Efst; exact Ef|split; [|split; [|exact Oth']]]]].
  - rewrite !app_length, !padd_add. eapply exec_to_trans; [exact ST0|]. eapply exec_to_trans; [exact ST1|]. exact ST2.
  - split; [|split; [|split; [|split; [|split; [exact FR2|split]]]]].
    + rewrite <- EFr. eapply st_eqB_trans; eassumption.
    + rewrite <- Efst, Ef. exact Rr.
    + intros k' Hk'. apply Oth'; lia.
    + rewrite Out. destruct SB01 as (_ & _ & X). exact X.
    + intros a Ha Hout. specialize (Hout rv (or_introl eq_refl)). rewrite NB by exact Ha. rewrite S3 by lia. apply W0'. lia.
    + eapply stack_frame_trans; [apply stack_frame_sbt; exact SB01|exact SF2].
  - (* the field words of the block are not block headers: acquire_block leaves them *)
    split.
    + intros i b Hi. assert (Hil : (i < n - rl)%nat) by (rewrite <- Lnext; apply nth_error_Some; congruence).
      rewrite Lnext in *. rewrite <- !Z.add_assoc, !NB by (apply X86MemFrame.not_blk_off; [exact Hb|lia]).
      rewrite !Z.add_assoc. exact (B1 i b Hi).
    + intros j Hj. rewrite Lnext in *. rewrite <- Z.add_assoc, NB by (apply X86MemFrame.not_blk_off; [exact Hb|lia]).
      rewrite Z.add_assoc. exact (B2 j Hj).
  - intros ->. rewrite NB by (apply X86MemFrame.not_blk_off; [exact Hb|lia]).
    rewrite S3 by (change (3 - bp_n Other)%N with 2%N in *; lia).
    rewrite W0, Z.eqb_refl. reflexivity.
Qed.

Lemma a64_store_block pos bp to_store remaining lc c0 sv s sp F val link :
  let E := List.length remaining in
  let n := List.length to_store in
  let cap := (3 - bp_n bp)%N in
  let rl := rest_len n cap in
  let k := (2 * N.of_nat (E + rl))%N in
  let acq := fst (acquire_block (tpos k) lc) in
  link_code bp remaining to_store = Ok c0 ->
  store_values (rev (skipn rl to_store)) (remaining ++ firstn rl to_store) HEAP cap = Ok sv ->
  (k < MAXPOS)%N ->
  code_at im pos (c0 ++ sv ++ acq) -> labels_at im pos (c0 ++ sv ++ acq) ->
  frame_ok s sp -> vals_ok s sp val E to_store ->
  (bp = Other -> lget s sp (tpos (2 * N.of_nat (E + n))) = Some link) ->
  acq_ok (abs_heap F s) -> hdr64 (abs_heap F s) ->
  let P := Heap.pad (N.to_nat cap) (Heap.lastn (N.to_nat cap) (fsts val E to_store)) ++ (match bp with Other => [link] | Last => [] end) in
  let res := Heap.alloc P (abs_heap F s) in
  exists s', exec_to im pos s (padd pos (List.length (c0 ++ sv ++ acq))) s' /\
    store_frame s s' sp (E + rl) [fst res] res /\ is_blk (fst res) /\
    blk_words (hword s') val (E + rl) (skipn rl to_store) (fst res) (N.to_nat cap) /\
    (bp = Other -> hword s' (fst res + 48) = link).
Proof.
  intros E n cap rl k acq Hc0 Hsv Hk HC HL FR V Hlink AOK H64 P res.
  destruct (acq_ok_machine F s AOK) as (rv & h2 & R & Hb & Rf & Hb2 & Hch).
  assert (I64 : min_int <= hword s rv <= max_int).
  { unfold hdr64 in H64. cbn [abs_heap Heap.heap Heap.m] in H64. unfold reg_or0 in H64. rewrite R in H64. exact H64. }
  destruct (a64_store_block_m pos bp to_store remaining lc c0 sv s sp F val link rv h2 Hc0 Hsv Hk HC HL FR V Hlink R Hb Rf I64 Hb2 Hch)
    as (s' & ST & SF & Erv & BW & LK & _).
  fold E n cap rl k acq P res in ST, SF, Erv, BW. rewrite <- Erv in SF, Hb, BW, LK.
  exists s'. split; [exact ST|]. split; [exact SF|]. split; [exact Hb|]. split; [exact BW|exact LK].
Qed.

(* The continuation blocks (BlockPosition::Other).  The abstract heap `a` need only agree block-wise with the
   abstraction of s: this is what a round leaves. *)
Lemma a64_store_fields_other : forall fuel to_store remaining lc cs lc' pos s sp a val link fa,
  store_fields fuel to_store remaining Other lc = Ok (cs, lc') ->
  (List.length to_store < fuel)%nat -> (List.length to_store <= fa)%nat ->
  code_at im pos cs -> labels_at im pos cs -> frame_ok s sp ->
  vals_ok s sp val (List.length remaining) to_store ->
  lget s sp (tpos (2 * N.of_nat (List.length remaining + List.length to_store))) = Some link ->
  st_eqB (abs_heap (Heap.frontier a) s) a ->
  chain_pre fa (fsts val (List.length remaining) to_store) link a ->
  chain_hdr64 fa (fsts val (List.length remaining) to_store) link a ->
  let acq := chain_acq fa (fsts val (List.length remaining) to_store) link a in
  let res := Heap.store_other fa (fsts val (List.length remaining) to_store) link a in
  exists s', exec_to im pos s (padd pos (List.length cs)) s' /\
    store_frame s s' sp (List.length remaining) acq res /\
    store_chain s s' val (List.length remaining) to_store link acq (fst res).
Proof.
  induction fuel as [|fuel IH]; intros to_store remaining lc cs lc' pos s sp a0 val link fa Hsf Hfuel Hfa HC HL FR V Hlink EQ Pre0 H640 acq0 res0; [lia|].
  set (E := List.length remaining) in *. set (F := Heap.frontier a0) in *.
  (* it is enough to show it of the abstraction of s *)
  destruct (X86MemStoreChain.store_other_congr fa _ link a0 (abs_heap F s) (st_eqB_sym _ _ EQ) Pre0) as (Pre & Ef0 & Es0).
  pose proof (chain_hdr64_congr fa _ link a0 (abs_heap F s) (st_eqB_sym _ _ EQ) Pre0 H640) as H64.
  unfold acq0. rewrite (X86MemStoreFull.chain_acq_congr fa _ link a0 (abs_heap F s) (st_eqB_sym _ _ EQ) Pre0).
  set (acq := chain_acq fa (fsts val E to_store) link (abs_heap F s)).
  set (res := Heap.store_other fa (fsts val E to_store) link (abs_heap F s)) in *.
  enough (exists s', exec_to im pos s (padd pos (List.length cs)) s' /\ store_frame s s' sp E acq res /\
                     store_chain s s' val E to_store link acq (fst res)) as (s' & ST & SF & CH)
    by (exists s'; unfold res0; rewrite Ef0; eauto using store_frame_eqB).
  clear EQ Pre0 H640 acq0 res0 Ef0 Es0.
  destruct to_store as [|x r].
  - cbn [store_fields] in Hsf. inversion Hsf; subst cs lc'. cbn [List.length] in Hlink. rewrite Nat.add_0_r in Hlink.
    assert (Hres : res = (link, abs_heap F s)) by (unfold res; destruct fa; reflexivity).
    assert (Hacq : acq = []) by (unfold acq; destruct fa; reflexivity).
    rewrite Hres, Hacq. cbn [fst snd abs_heap Heap.frontier List.length padd rev app].
    exists s. split; [apply exec_refl|]. split.
    + split; [apply st_eqB_refl|]. repeat (split; [auto; fail|]). apply stack_frame_refl.
    + intros done kk. cbv zeta. intros _ Hbl _ CH _. cbn [List.length rev app] in *. change (nbo 0) with 0%nat. rewrite Nat.add_0_r in *. auto.
  - set (to_store := x :: r) in *. set (n := List.length to_store) in *.
    destruct (store_fields_unfold fuel to_store remaining Other lc cs lc' ltac:(discriminate) Hsf) as (c0 & sv & c3 & Hc0 & Hsv & Hk & Hsf3 & ->).
    change (3 - bp_n Other)%N with 2%N in *. fold n in Hk, Hsv, Hsf3, HC, HL |- *.
    set (rl := rest_len n 2) in *.
    assert (Hn1 : (1 <= n)%nat) by (unfold n, to_store; cbn [List.length]; lia).
    assert (Hrl : rl = (n - 2)%nat) by apply X86MemStoreChain.rest_len_val.
    assert (Lfirst : List.length (firstn rl to_store) = rl) by (rewrite firstn_length; fold n; lia).
    assert (Lnext : List.length (skipn rl to_store) = (n - rl)%nat) by (rewrite skipn_length; reflexivity).
    assert (Lrr : List.length (remaining ++ firstn rl to_store) = (E + rl)%nat) by (rewrite app_length, Lfirst; reflexivity).
    rewrite Lrr in *.
    destruct fa as [|fa]; [lia|].
    (* one step of chain_pre, chain_hdr64, chain_acq and store_other: the list of fields is not empty *)
    subst acq res. remember (fsts val E to_store) as fields eqn:Ef in *.
    destruct fields as [|f0 fr]; [discriminate Ef|].
    cbn [X86MemStoreChain.chain_pre chain_hdr64 X86HeapAcq.chain_acq] in Pre, H64 |- *.
    rewrite X86MemStoreChain.store_other_step by discriminate.
    destruct Pre as [AOK Pre']. destruct H64 as [H640 H64'].
    rewrite Ef in *. clear Ef f0 fr. set (fields := fsts val E to_store) in *.
    set (P := Heap.pad 2 (Heap.lastn 2 fields) ++ [link]) in *.
    rewrite !app_assoc in HC, HL. apply code_at_app2 in HC as [HC1 HC3]. apply labels_at_app2 in HL as [HL1 HL3].
    rewrite <- !app_assoc in HC1, HL1. rewrite <- (app_assoc c0 sv) in HC3, HL3.
    destruct (a64_store_block pos Other to_store remaining lc c0 sv s sp F val link Hc0 Hsv Hk HC1 HL1 FR V (fun _ => Hlink) AOK H640)
      as (s2 & ST2 & SF2 & Bb & BW & LK).
    specialize (LK eq_refl).
    change (N.to_nat (3 - bp_n Other)) with 2%nat in *. change (3 - bp_n Other)%N with 2%N in *. fold E n rl fields P in ST2, SF2, Bb, BW, LK.
    rewrite <- (X86MemStoreChain.alloc_fst P).
    set (b := fst (Heap.alloc P (abs_heap F s))) in *. set (a1 := snd (Heap.alloc P (abs_heap F s))) in *.
    assert (Hbut : Heap.butlastn 2 fields = fsts val E (firstn rl to_store)) by (rewrite Hrl; apply butlastn_fsts).
    rewrite Hbut in *.
    pose proof (vals_ok_firstn s s2 sp val E rl to_store _ _ SF2 V) as V2. pose proof SF2 as (EQ2 & Rr & _ & _ & FR2 & _).
    rewrite <- Lfirst in Rr.
    set (acq' := chain_acq fa (fsts val E (firstn rl to_store)) b a1) in *.
    rewrite (app_assoc sv), (app_assoc c0).
    destruct (IH (firstn rl to_store) remaining _ c3 lc' _ s2 sp a1 val b fa Hsf3 ltac:(rewrite Lfirst; lia) ltac:(rewrite Lfirst; lia)
                HC3 HL3 FR2 V2 Rr EQ2 Pre' H64') as (s3 & ST3 & SF3 & Strong3).
    fold E acq' in SF3, Strong3. unfold store_chain in Strong3. rewrite Lfirst in Strong3.
    exists s3. split; [eapply exec_app_len; eassumption|]. split.
    + exact (store_frame_trans s s2 s3 sp (E + rl) E _ _ _ _ ltac:(lia) SF2 SF3).
    + (* the chain after this round *)
      intros done kk. cbv zeta. set (bl := wblocks kk (hword s) link). intros ND Hbl Hdisj CH Hfull.
      assert (Fr2 : forall a, ~ is_blk a -> a < b \/ b + 64 <= a -> hword s2 a = hword s a).
      { intros a Ha Hout. apply SF2; [exact Ha|]. intros y [<-|[]]. exact Hout. }
      assert (Hnin : ~ In b bl) by (apply Hdisj; left; reflexivity).
      assert (Hsame : forall x, In x bl -> forall i, 0 < i < 64 -> hword s2 (x + i) = hword s (x + i))
        by (apply (X86MemStoreFull.frame_blocks (hword s) (hword s2) b bl Fr2 Bb Hbl Hnin)).
      destruct (X86MemStoreFull.wchain_congr (hword s) (hword s2) kk link) as [EB2 _]; [intros y Hy; apply Hsame; [exact Hy|lia]|].
      assert (Hbl2 : wblocks (S kk) (hword s2) b = b :: bl) by (cbn [X86HeapDefs.wblocks]; rewrite LK, EB2; reflexivity).
      assert (Ldone : List.length done = (2 * kk + 3)%nat) by (apply Hfull; discriminate).
      assert (CH2 : chain_holds (hword s2) val (E + rl) (skipn rl to_store ++ done) (S kk) b).
      { apply (X86MemStoreFull.chain_holds_ext _ _ _ _ _ _ link); [|exact Ldone|exact LK|exact BW|rewrite Lnext; lia].
        rewrite Lnext. replace (E + rl + (n - rl))%nat with (E + n)%nat by lia.
        eapply X86MemStoreFull.chain_holds_congr; [exact CH|exact Hsame]. }
      destruct (Strong3 (skipn rl to_store ++ done) (S kk)) as (WB3 & FB3 & CH3).
      { inversion ND; assumption. }
      { rewrite Hbl2. apply Forall_cons; [exact Bb|exact Hbl]. }
      { rewrite Hbl2. intros y Hy [<-|Hin].
        - inversion ND; contradiction.
        - apply (Hdisj y); [right; exact Hy|exact Hin]. }
      { exact CH2. }
      { intros Hne'. rewrite app_length, Lnext, Ldone.
        assert (rl <> 0)%nat by (intros H0; rewrite H0 in Hne'; apply Hne'; reflexivity). lia. }
      rewrite Hbl2 in WB3, FB3.
      assert (HK : (kk + nbo n = S kk + nbo rl)%nat) by (rewrite (X86MemLoadChain.nbo_step n Hn1), Hrl; lia).
      assert (Hrev : rev (b :: acq') ++ bl = rev acq' ++ b :: bl) by (cbn [rev]; now rewrite <- app_assoc).
      fold n. split; [|split].
      * rewrite HK, Hrev. exact WB3.
      * rewrite Hrev. exact FB3.
      * rewrite HK. rewrite app_assoc, firstn_skipn in CH3. exact CH3.
Qed.

Lemma a64_store_rounds pos to_store remaining lc cs lc' s sp F val :
  a_store to_store remaining lc = Ok (cs, lc') -> to_store <> [] ->
  code_at im pos cs -> labels_at im pos cs -> frame_ok s sp ->
  vals_ok s sp val (List.length remaining) to_store ->
  let E := List.length remaining in let n := List.length to_store in let k := Heap.nlinks n in
  let fields := fsts val E to_store in
  alloc_object_pre fields (abs_heap F s) -> alloc_object_hdr64 fields (abs_heap F s) ->
  let res := Heap.alloc_object fields (abs_heap F s) in
  exists s', exec_to im pos s (padd pos (List.length cs)) s' /\
    store_frame s s' sp E (alloc_object_acq fields (abs_heap F s)) res /\
    (NoDup (alloc_object_acq fields (abs_heap F s)) ->
     wblocks k (hword s') (fst res) = rev (alloc_object_acq fields (abs_heap F s)) /\
     Forall is_blk (wblocks k (hword s') (fst res)) /\
     (let A := waddrs k (hword s') (fst res) in
      (forall i b, nth_error to_store i = Some b ->
         let a := nth (List.length A - n + i) A 0 in
         hword s' a = fst_slot val (E + i) b /\ hword s' (a + 8) = snd_slot val (E + i)) /\
      (forall j, (j < List.length A - n)%nat -> hword s' (nth j A 0) = 0))).
Proof.
  intros Hx Hne HC HL FR V E n k fields Pre H64 res. unfold a_store in Hx. fold n in Hx.
  destruct (store_fields_unfold n to_store remaining Last lc cs lc' Hne Hx) as (c0 & sv & c3 & Hc0 & Hsv & Hk & Hsf3 & ->).
  change (3 - bp_n Last)%N with 3%N in *. fold n in Hk, Hsv, Hsf3, HC, HL |- *.
  set (rl := rest_len n 3) in *.
  assert (Hrl : rl = (n - 3)%nat) by apply X86MemStoreChain.rest_len_val.
  assert (Lfirst : List.length (firstn rl to_store) = rl) by (rewrite firstn_length; fold n; lia).
  assert (Lnext : List.length (skipn rl to_store) = (n - rl)%nat) by (rewrite skipn_length; reflexivity).
  assert (Hn : (1 <= n)%nat) by (unfold n; destruct to_store; [contradiction|cbn; lia]).
  assert (Lrr : List.length (remaining ++ firstn rl to_store) = (E + rl)%nat) by (rewrite app_length, Lfirst; reflexivity).
  rewrite Lrr in *.
  (* alloc_object, its precondition and its blocks are a first round followed by store_other: the list of fields is not empty *)
  subst res fields. remember (fsts val E to_store) as fields eqn:Ef in *.
  assert (Lfields : List.length fields = n) by (rewrite Ef; apply X86MemStore.fsts_length).
  destruct fields as [|f0 fr]; [cbn in Lfields; lia|].
  unfold X86MemStoreChain.alloc_object_pre, alloc_object_hdr64 in Pre, H64. unfold X86HeapAcq.alloc_object_acq, Heap.alloc_object.
  rewrite (surjective_pairing (Heap.alloc _ _)). cbn [fst snd]. rewrite Lfields in *.
  destruct Pre as [AOK Pre']. destruct H64 as [H640 H64'].
  rewrite Ef in *. clear Ef f0 fr. set (fields := fsts val E to_store) in *.
  set (P := Heap.pad 3 (Heap.lastn 3 fields)) in *.
  rewrite !app_assoc in HC, HL. apply code_at_app2 in HC as [HC1 HC3]. apply labels_at_app2 in HL as [HL1 HL3].
  rewrite <- !app_assoc in HC1, HL1. rewrite <- (app_assoc c0 sv) in HC3, HL3.
  destruct (a64_store_block pos Last to_store remaining lc c0 sv s sp F val 0 Hc0 Hsv Hk HC1 HL1 FR V ltac:(discriminate) AOK H640)
    as (s2 & ST2 & SF2 & Bb & BW & _).
  change (N.to_nat (3 - bp_n Last)) with 3%nat in *. change (3 - bp_n Last)%N with 3%N in *. rewrite app_nil_r in *.
  fold E n rl fields P in ST2, SF2, Bb, BW.
  rewrite <- (X86MemStoreChain.alloc_fst P).
  set (b := fst (Heap.alloc P (abs_heap F s))) in *. set (a1 := snd (Heap.alloc P (abs_heap F s))) in *.
  assert (Hbut : Heap.butlastn 3 fields = fsts val E (firstn rl to_store)) by (rewrite Hrl; apply butlastn_fsts).
  rewrite Hbut in *.
  pose proof (vals_ok_firstn s s2 sp val E rl to_store _ _ SF2 V) as V2. pose proof SF2 as (EQ2 & Rr & _ & _ & FR2 & _).
  rewrite <- Lfirst in Rr.
  set (acq' := chain_acq n (fsts val E (firstn rl to_store)) b a1) in *.
  rewrite (app_assoc sv), (app_assoc c0).
  destruct (a64_store_fields_other n (firstn rl to_store) remaining _ c3 lc' _ s2 sp a1 val b n Hsf3 ltac:(rewrite Lfirst; lia)
              ltac:(rewrite Lfirst; lia) HC3 HL3 FR2 V2 Rr EQ2 Pre' H64') as (s3 & ST3 & SF3 & Strong3).
  fold E acq' in SF3, Strong3. unfold store_chain in Strong3. rewrite Lfirst in Strong3.
  exists s3. split; [eapply exec_app_len; eassumption|]. split.
  + exact (store_frame_trans s s2 s3 sp (E + rl) E _ _ _ _ ltac:(lia) SF2 SF3).
  + intros ND.
    assert (CH2 : chain_holds (hword s2) val (E + rl) (skipn rl to_store) 0 b)
      by (apply X86MemStoreFull.chain_holds_last; [exact BW|rewrite Lnext; lia]).
    destruct (Strong3 (skipn rl to_store) 0%nat) as (WB3 & FB3 & CH3).
    { inversion ND; assumption. }
    { cbn [X86HeapDefs.wblocks]. apply Forall_cons; [exact Bb|apply Forall_nil]. }
    { cbn [X86HeapDefs.wblocks]. intros y Hy [<-|[]]. inversion ND; contradiction. }
    { exact CH2. }
    { intros Hne'. rewrite Lnext.
      assert (rl <> 0)%nat by (intros H0; rewrite H0 in Hne'; apply Hne'; reflexivity). lia. }
    cbn [X86HeapDefs.wblocks] in WB3, FB3. rewrite firstn_skipn in CH3. cbn [Nat.add] in WB3, CH3.
    assert (HK : k = nbo rl) by (unfold k; rewrite X86MemLoadChain.nlinks_nbo, Hrl; reflexivity).
    rewrite <- HK in WB3, CH3.
    assert (Hrev : rev (b :: acq') = rev acq' ++ [b]) by reflexivity.
    split; [rewrite Hrev; exact WB3|]. split; [rewrite WB3; exact FB3|].
    destruct CH3 as (C1 & C2 & _). cbv zeta. fold n in C1, C2. split; [exact C1|exact C2].
Qed.

(* C09_a64_store *)
Theorem a64_store_full pos to_store remaining lc cs lc' s sp F val :
  a_store to_store remaining lc = Ok (cs, lc') -> to_store <> [] ->
  code_at im pos cs -> labels_at im pos cs -> frame_ok s sp ->
  vals_ok s sp val (List.length remaining) to_store ->
  let E := List.length remaining in let n := List.length to_store in let k := Heap.nlinks n in
  let fields := fsts val E to_store in
  alloc_object_pre fields (abs_heap F s) -> alloc_object_hdr64 fields (abs_heap F s) ->
  NoDup (alloc_object_acq fields (abs_heap F s)) ->
  let res := Heap.alloc_object fields (abs_heap F s) in
  exists s', exec_to im pos s (padd pos (List.length cs)) s' /\
    st_eqB (abs_heap (Heap.frontier (snd res)) s') (snd res) /\
    lget s' sp (tpos (2 * N.of_nat E)) = Some (fst res) /\
    (forall q, (q < 2 * N.of_nat E)%N -> lget s' sp (tpos q) = lget s sp (tpos q)) /\
    out s' = out s /\ frame_ok s' sp /\
    wblocks k (hword s') (fst res) = rev (alloc_object_acq fields (abs_heap F s)) /\
    Forall is_blk (wblocks k (hword s') (fst res)) /\
    (let A := waddrs k (hword s') (fst res) in
     (forall i b, nth_error to_store i = Some b ->
        let a := nth (List.length A - n + i) A 0 in
        hword s' a = fst_slot val (E + i) b /\ hword s' (a + 8) = snd_slot val (E + i)) /\
     (forall j, (j < List.length A - n)%nat -> hword s' (nth j A 0) = 0)) /\
    (forall a, ~ is_blk a -> (forall b, In b (alloc_object_acq fields (abs_heap F s)) -> a < b \/ b + 64 <= a) -> hword s' a = hword s a) /\
    stack_frame s s' sp.
Proof.
  intros Hx Hne HC HL FR V E n k fields Pre H64 ND res.
  destruct (a64_store_rounds pos to_store remaining lc cs lc' s sp F val Hx Hne HC HL FR V Pre H64)
    as (s' & X1 & (X2 & X3 & X4 & X5 & X6 & X7 & X8) & X9).
  destruct (X9 ND) as (Y1 & Y2 & Y3).
  exists s'. split; [exact X1|]. split; [exact X2|]. split; [exact X3|]. split; [exact X4|]. split; [exact X5|].
  split; [exact X6|]. split; [exact Y1|]. split; [exact Y2|]. split; [exact Y3|]. split; [exact X7|exact X8].
Qed.

(* the shape of C09_x86_store *)
Theorem a64_store_ok pos to_store remaining lc cs lc' s sp F val :
  a_store to_store remaining lc = Ok (cs, lc') -> to_store <> [] ->
  code_at im pos cs -> labels_at im pos cs -> frame_ok s sp ->
  vals_ok s sp val (List.length remaining) to_store ->
  alloc_object_pre (fsts val (List.length remaining) to_store) (abs_heap F s) ->
  alloc_object_hdr64 (fsts val (List.length remaining) to_store) (abs_heap F s) ->
  let res := Heap.alloc_object (fsts val (List.length remaining) to_store) (abs_heap F s) in
  exists s', exec_to im pos s (padd pos (List.length cs)) s' /\
    st_eqB (abs_heap (Heap.frontier (snd res)) s') (snd res) /\
    lget s' sp (tpos (2 * N.of_nat (List.length remaining))) = Some (fst res) /\
    (forall k, (k < 2 * N.of_nat (List.length remaining))%N -> lget s' sp (tpos k) = lget s sp (tpos k)) /\
    out s' = out s /\ frame_ok s' sp.
Proof.
  intros Hx Hne HC HL FR V Pre H64 res.
  destruct (a64_store_rounds pos to_store remaining lc cs lc' s sp F val Hx Hne HC HL FR V Pre H64)
    as (s' & X1 & (X2 & X3 & X4 & X5 & X6 & _) & _).
  exists s'. split; [exact X1|]. split; [exact X2|]. split; [exact X3|]. split; [exact X4|]. split; [exact X5|exact X6].
Qed.

(* C09_a64_store_one_block: 1..3 variables = one Heap.alloc *)
Theorem a64_store_one_block_ok pos to_store remaining lc cs lc' s sp rv h2 F val :
  a_store to_store remaining lc = Ok (cs, lc') ->
  (1 <= List.length to_store <= 3)%nat ->
  code_at im pos cs -> labels_at im pos cs ->
  frame_ok s sp ->
  rget s HEAP = Some rv -> is_blk rv -> rget s FREE = Some h2 ->
  min_int <= hword s rv <= max_int ->
  (hword s rv = 0 -> is_blk h2) ->
  (hword s rv = 0 -> hword s h2 <> 0 ->
     (forall off, off = 16 \/ off = 32 \/ off = 48 -> hword s (h2 + off) = 0 \/ is_blk (hword s (h2 + off))) /\
     bounded 3 s (hword s h2)) ->
  vals_ok s sp val (List.length remaining) to_store ->
  let E := List.length remaining in
  let n := List.length to_store in
  let res := Heap.alloc (Heap.pad 3 (fsts val E to_store)) (abs_heap F s) in
  exists s', exec_to im pos s (padd pos (List.length cs)) s' /\
    st_eqB (abs_heap (Heap.frontier (snd res)) s') (snd res) /\
    fst res = rv /\
    lget s' sp (tpos (2 * N.of_nat E)) = Some rv /\
    (forall i, (i < n)%nat -> hword s' (rv + field_offset Snd (3 - N.of_nat n + N.of_nat i)) = snd_slot val (E + i)) /\
    (forall k, (k < MAXPOS)%N -> k <> (2 * N.of_nat E)%N -> lget s' sp (tpos k) = lget s sp (tpos k)) /\
    out s' = out s /\ frame_ok s' sp /\ stack_frame s s' sp.
Proof.
  intros Hx Hlen HC HL FR R Hb Rf I64 Hb2 Hch V E n res. unfold a_store in Hx. fold n in Hx, Hlen.
  assert (Hne : to_store <> []) by (intros ->; cbn in Hlen; lia).
  destruct (store_fields_unfold n to_store remaining Last lc cs lc' Hne Hx) as (c0 & sv & c3 & Hc0 & Hsv & Hk & Hsf3 & ->).
  pose proof (a64_store_block_m pos Last to_store remaining lc c0 sv s sp F val 0 rv h2 Hc0) as BLK.
  change (3 - bp_n Last)%N with 3%N in *. change (N.to_nat 3) with 3%nat in *. fold n E in Hk, Hsv, Hsf3, BLK, HC, HL |- *.
  assert (Hrl : rest_len n 3 = 0%nat) by (rewrite X86MemStoreChain.rest_len_val; lia).
  rewrite Hrl in *. cbn [firstn skipn] in *. rewrite !app_nil_r in Hk, Hsv, Hsf3, BLK, HC, HL |- *. fold E in Hk, Hsf3, HC, HL |- *.
  replace (E + 0)%nat with E in BLK by lia.
  assert (Ec3 : c3 = []) by (destruct n; [lia|]; cbn [store_fields] in Hsf3; now inversion Hsf3).
  subst c3. rewrite !app_nil_r in HC, HL |- *.
  destruct (BLK Hsv Hk HC HL FR V ltac:(discriminate) R Hb Rf I64 Hb2 Hch) as (s' & X1 & (X2 & X3 & _ & X5 & X6 & _ & X11) & X7 & (B1 & _) & _ & X4).
  assert (EP : Heap.pad 3 (Heap.lastn 3 (fsts val E to_store)) ++ [] = Heap.pad 3 (fsts val E to_store)).
  { rewrite app_nil_r. f_equal. unfold Heap.lastn. rewrite X86MemStore.fsts_length. fold n. now replace (n - 3)%nat with 0%nat by lia. }
  rewrite EP in *. fold res in X2, X3, X7.
  exists s'. split; [exact X1|]. split; [exact X2|]. split; [exact X7|]. split; [rewrite <- X7; exact X3|].
  split; [|split; [exact X4|split; [exact X5|split; [exact X6|exact X11]]]].
  intros i Hi. destruct (nth_error to_store i) as [b|] eqn:Eb; [|apply nth_error_None in Eb; fold n in Eb; lia].
  destruct (B1 i b Eb) as [_ A]. fold n in A. rewrite <- A. f_equal. rewrite field_offset_val. cbn [tnum_n]. lia.
Qed.
End Chain.

Print Assumptions a64_store_full.
Print Assumptions a64_store_ok.
Print Assumptions a64_store_one_block_ok.

(* The hypotheses are satisfiable: five variables (two blocks) behind thirteen others, so that the variables
   stored, the link and BOTH new block pointers live in SPILL SLOTS (positions 26..35 = slots 1..10; the object
   pointer goes to position 26 = slot 1). *)
Definition ex5_val (k : N) : Z := 100 + Z.of_N k.
Definition ex_sp : Z := STACK_TOP - 4096.
Definition ex5_state : astate :=
  fold_left (fun s k => sset s ex_sp (k - 25)%N (Some (ex5_val k)))
            [26; 27; 28; 29; 30; 31; 32; 33; 34; 35]%N
            (rset (rset (rset (init_state []) SP (Some ex_sp)) HEAP (Some HEAP_BASE)) FREE (Some (HEAP_BASE + 64))).
Definition ex5_rem : ctx := repeat (mkb ("r"%string, 0%N) Ext I64) 13.
Definition ex5_store : ctx :=
  [mkb ("a"%string, 0%N) Ext I64; mkb ("b"%string, 1%N) Prd (Decl ("T"%string, 0%N)); mkb ("c"%string, 2%N) Ext I64;
   mkb ("d"%string, 3%N) Cns (Decl ("T"%string, 0%N)); mkb ("e"%string, 4%N) Ext I64].
Definition ex5_code : list acode := match a_store ex5_store ex5_rem 0 with Ok (cs, _) => cs | Err _ => [] end.

Example a64_store_example :
  let a := abs_heap (HEAP_BASE + 64) ex5_state in
  let res := Heap.alloc_object (fsts ex5_val 13 ex5_store) a in
  exists lc', a_store ex5_store ex5_rem 0 = Ok (ex5_code, lc') /\
  fsts ex5_val 13 ex5_store = [0; 128; 0; 132; 0] /\ tpos 26 = AS 1 /\
  fst res = HEAP_BASE + 64 /\ Heap.frontier (snd res) = HEAP_BASE + 192 /\
  exists s', exec_to (mk_image ex5_code) 1 ex5_state (padd 1 (List.length ex5_code)) s' /\
     st_eqB (abs_heap (HEAP_BASE + 192) s') (snd res) /\ sget s' ex_sp 1 = Some (HEAP_BASE + 64) /\
     wblocks 1 (hword s') (HEAP_BASE + 64) = [HEAP_BASE + 64; HEAP_BASE] /\
     hword s' (HEAP_BASE + 64 + 16 + 8) = 127 /\ hword s' (HEAP_BASE + 64 + 32) = 128 /\ hword s' (HEAP_BASE + 48 + 8) = 135 /\
     stack_frame ex5_state s' ex_sp.
Proof.
  intros a res.
  assert (Hx : exists lc', a_store ex5_store ex5_rem 0 = Ok (ex5_code, lc')).
  { unfold ex5_code. destruct (a_store ex5_store ex5_rem 0) as [[cs lc']|] eqn:E; [now exists lc'|].
    vm_compute in E. discriminate E. }
  destruct Hx as [lc' Hx]. exists lc'. split; [exact Hx|]. split; [reflexivity|]. split; [reflexivity|].
  assert (Ef : fst res = HEAP_BASE + 64) by (vm_compute; reflexivity).
  assert (EF : Heap.frontier (snd res) = HEAP_BASE + 192) by (vm_compute; reflexivity).
  split; [exact Ef|]. split; [exact EF|].
  destruct (mk_image_code_labels ex5_code) as [HC HL]; [apply X86MemStore.nodupb_sound; vm_compute; reflexivity|].
  assert (Bk : forall k, 0 <= k <= 3 -> is_blk (HEAP_BASE + 64 * k)).
  { intros k Hk. exists k. split; [lia|]. split; [reflexivity|]. unfb. lia. }
  assert (Eacq : alloc_object_acq (fsts ex5_val 13 ex5_store) a = [HEAP_BASE; HEAP_BASE + 64]) by (vm_compute; reflexivity).
  destruct (a64_store_full (mk_image ex5_code) 1 ex5_store ex5_rem 0 ex5_code lc' ex5_state ex_sp (HEAP_BASE + 64) ex5_val Hx ltac:(discriminate) HC HL)
    as (s' & ST & EQ & Rr & _ & _ & _ & WB & _ & (WD & _) & _ & SF).
  - split; [reflexivity|exact sp_ok_4096].
  - intros i b Hi. destruct i as [|[|[|[|[|i]]]]]; cbn in Hi; try (destruct i; discriminate); inversion Hi; subst b;
      (split; [vm_compute; reflexivity|intros _; vm_compute; reflexivity]).
  - change (List.length ex5_rem) with 13%nat. change (fsts ex5_val 13 ex5_store) with [0; 128; 0; 132; 0].
    unfold X86MemStoreChain.alloc_object_pre. split.
    + split; [exact (Bk 0 ltac:(lia))|]. split; [vm_compute; discriminate|]. split.
      * intros _. exact (Bk 1 ltac:(lia)).
      * intros _ H. exfalso. apply H. vm_compute. reflexivity.
    + cbn [List.length X86MemStoreChain.chain_pre]. unfold Heap.butlastn at 1. cbn [List.length Nat.sub firstn]. split.
      * split; [|split; [|split]].
        -- replace (Heap.heap _) with (HEAP_BASE + 64 * 1) by (vm_compute; reflexivity). apply Bk. lia.
        -- vm_compute. discriminate.
        -- intros _. replace (Heap.free _) with (HEAP_BASE + 64 * 2) by (vm_compute; reflexivity). apply Bk. lia.
        -- intros _ H. exfalso. apply H. vm_compute. reflexivity.
      * unfold Heap.butlastn. cbn [List.length Nat.sub firstn X86MemStoreChain.chain_pre]. exact I.
  - change (List.length ex5_rem) with 13%nat. change (fsts ex5_val 13 ex5_store) with [0; 128; 0; 132; 0].
    unfold alloc_object_hdr64. split; [unfold hdr64; vm_compute; split; discriminate|].
    cbn [List.length chain_hdr64]. unfold Heap.butlastn at 1. cbn [List.length Nat.sub firstn]. split.
    + unfold hdr64; vm_compute; split; discriminate.
    + unfold Heap.butlastn. cbn [List.length Nat.sub firstn chain_hdr64]. exact I.
  - change (List.length ex5_rem) with 13%nat. fold a. rewrite Eacq.
    constructor; [intros [H|[]]; unfold HEAP_BASE in H; lia|]. constructor; [intros []|constructor].
  - change (List.length ex5_rem) with 13%nat in *. change (Heap.nlinks (List.length ex5_store)) with 1%nat in *.
    fold a in EQ, Rr, WB, WD. fold res in EQ, Rr, WB, WD. rewrite EF in EQ. rewrite Ef in Rr, WB, WD. rewrite Eacq in WB.
    exists s'. split; [exact ST|]. split; [exact EQ|]. split; [exact Rr|]. split; [exact WB|].
    assert (LK : hword s' (HEAP_BASE + 64 + 48) = HEAP_BASE).
    { pose proof WB as WB'. cbn [X86HeapDefs.wblocks rev app] in WB'. injection WB' as LK0. exact LK0. }
    cbn [X86HeapDefs.waddrs app List.length] in WD. rewrite LK in WD.
    pose proof (WD 0%nat _ eq_refl) as W0. pose proof (WD 1%nat _ eq_refl) as W1. pose proof (WD 4%nat _ eq_refl) as W4.
    cbn [List.length ex5_store Nat.sub Nat.add nth] in W0, W1, W4.
    split; [exact (proj2 W0)|]. split; [exact (proj1 W1)|]. split; [exact (proj2 W4)|exact SF].
Qed.
Print Assumptions a64_store_example.
