(* C15, instance table: basic facts about the closure predicates of Sem/FunClosed.v relative to the
   keys of the instance table of a symbol table ([ikeys st]); monotonicity along [grows]. *)
From Coq Require Import List ZArith String Bool Permutation Lia.
From SCC Require Import Base.Sexp Lang.SynUtil Lang.FunSyn Model.Check Sem.FunTyping Sem.FunClosed
  Proof.FunInd Proof.FunEq Proof.CheckAnn Proof.TypingReject Proof.CheckBuild Proof.CheckMono Proof.CheckMonoSound
  Proof.PrintInj Proof.CheckPoly.
Import ListNotations.
Open Scope list_scope.

Definition ikeys (st : symtab) : list string := map fst (st_types st).

Lemma smem_In : forall x l, smem x l = true <-> In x l.
Proof.
  intros x l. unfold smem. rewrite existsb_exists. split.
  - intros [y [Hin E]]. apply String.eqb_eq in E. subst. assumption.
  - intros H. exists x. split; [assumption|apply String.eqb_refl].
Qed.
Lemma ahas_smem : forall {V} (m : amap V) k, ahas m k = smem k (map fst m).
Proof.
  intros V m k. unfold ahas. induction m as [|[k' v] r IH]; simpl; [reflexivity|].
  rewrite (String.eqb_sym k k'). destruct (String.eqb k' k); [reflexivity|exact IH].
Qed.

Definition terms_closed (names : list string) (l : list fterm) : bool := forallb (term_closed names) l.
Definition clauses_closed (names : list string) (l : list fclause) : bool :=
  forallb (fun c => term_closed names (clause_body c)) l.
Lemma terms_closed_eq : forall names l,
  (fix go (l : list fterm) : bool := match l with [] => true | a :: r => term_closed names a && go r end) l
  = terms_closed names l.
Proof. induction l; simpl; [reflexivity|]. rewrite IHl. reflexivity. Qed.
Lemma clauses_closed_eq : forall names l,
  (fix go (l : list fclause) : bool :=
     match l with [] => true | FClause _ _ _ _ b :: r => term_closed names b && go r end) l = clauses_closed names l.
Proof. induction l as [|[? ? ? ? ?] r IH]; simpl; [reflexivity|]. rewrite IH. reflexivity. Qed.

Definition names_le (a b : list string) : Prop := forall k, smem k a = true -> smem k b = true.
Lemma names_le_refl : forall a, names_le a a.
Proof. intros a k H; exact H. Qed.
Lemma names_le_trans : forall a b c, names_le a b -> names_le b c -> names_le a c.
Proof. intros a b c H1 H2 k H. auto. Qed.
Lemma grows_names_le : forall st st', grows st st' -> names_le (ikeys st) (ikeys st').
Proof. intros st st' G k H. unfold ikeys in *. rewrite <- ahas_smem in *. apply G. exact H. Qed.

Lemma ty_declared_mono : forall a b t, names_le a b -> ty_declared a t = true -> ty_declared b t = true.
Proof. intros a b [|n args] L H; [reflexivity|]. simpl in *. apply L. exact H. Qed.
Lemma oty_declared_mono : forall a b o, names_le a b -> oty_declared a o = true -> oty_declared b o = true.
Proof. intros a b [t|] L H; [eapply ty_declared_mono; eassumption|reflexivity]. Qed.
Lemma tys_declared_mono : forall a b l, names_le a b -> forallb (ty_declared a) l = true -> forallb (ty_declared b) l = true.
Proof.
  intros a b l L H. rewrite forallb_forall in *. intros t Ht. eapply ty_declared_mono; [exact L|auto].
Qed.

Lemma forallb_Forall_impl : forall {X} (f g : X -> bool) l,
  Forall (fun x => f x = true -> g x = true) l -> forallb f l = true -> forallb g l = true.
Proof.
  intros X f g l H. induction H as [|x r Hx _ IH]; simpl; [auto|].
  intros Hc. apply andb_true_iff in Hc. destruct Hc as [H1 H2]. rewrite (Hx H1), (IH H2). reflexivity.
Qed.

Lemma term_closed_mono : forall a b, names_le a b -> forall t, term_closed a t = true -> term_closed b t = true.
Proof.
  intros a b L t.
  pose proof (fun t => ty_declared_mono a b t L) as Ht. pose proof (fun o => oty_declared_mono a b o L) as Ho.
  pose proof (fun l => tys_declared_mono a b l L) as Hl.
  induction t using fterm_ind'; simpl; rewrite ?terms_closed_eq, ?clauses_closed_eq;
    unfold terms_closed, clauses_closed; intros Hc;
    repeat match goal with
           | H : _ && _ = true |- _ => apply andb_true_iff in H; destruct H
           end;
    repeat (apply andb_true_iff; split); auto;
    try (apply (forallb_Forall_impl _ _ _ H); assumption).
  destruct b0 as [b0|]; [|reflexivity]. eapply H; [reflexivity|assumption].
Qed.
Lemma terms_closed_mono : forall a b l, names_le a b -> terms_closed a l = true -> terms_closed b l = true.
Proof.
  intros a b l L H. unfold terms_closed in *. rewrite forallb_forall in *. intros t Ht.
  eapply term_closed_mono; [exact L|auto].
Qed.
Lemma clauses_closed_mono : forall a b l, names_le a b -> clauses_closed a l = true -> clauses_closed b l = true.
Proof.
  intros a b l L H. unfold clauses_closed in *. rewrite forallb_forall in *. intros t Ht.
  eapply term_closed_mono; [exact L|auto].
Qed.

Lemma ctx_declared_mono : forall a b c, names_le a b -> ctx_declared a c = true -> ctx_declared b c = true.
Proof.
  intros a b c L H. unfold ctx_declared in *. rewrite forallb_forall in *. intros x Hx.
  eapply ty_declared_mono; [exact L|auto].
Qed.
Lemma def_closed_mono : forall a b d, names_le a b -> def_closed a d = true -> def_closed b d = true.
Proof.
  intros a b d L H. unfold def_closed in *.
  apply andb_true_iff in H. destruct H as [H H3]. apply andb_true_iff in H. destruct H as [H1 H2].
  rewrite (ctx_declared_mono _ _ _ L H1), (ty_declared_mono _ _ _ L H2), (term_closed_mono _ _ L _ H3). reflexivity.
Qed.

Section InstBase.
  Variable ts : list tdecl.
  Variable fs : list fdef.
  Hypothesis W : poly_world ts fs.

  Lemma has_inst_declared : forall st t, has_inst_p st t -> ty_declared (ikeys st) t = true.
  Proof. intros st [|n a] H; [reflexivity|]. simpl in *. unfold ikeys. rewrite <- ahas_smem. exact H. Qed.
  Lemma declared_has_inst : forall st t, ty_declared (ikeys st) t = true -> has_inst_p st t.
  Proof. intros st [|n a] H; [exact I|]. simpl in *. unfold ikeys in H. rewrite <- ahas_smem in H. exact H. Qed.

  Lemma has_inst_targs : forall st n a, pinv ts st -> name_ok n = true -> tys_names_ok a = true ->
    has_inst_p st (FDecl n a) -> Forall (has_inst_p st) a.
  Proof.
    intros st n a I Nn Na H. simpl in H. apply ahas_true in H. destruct H as [[[pol targs] xs] Hg].
    pose proof (pi_targs _ _ I _ _ _ _ Hg) as Ht.
    destruct (pi_types _ _ I _ _ _ _ Hg) as [td [Htd [Ek [_ [_ [_ Hwf]]]]]].
    destruct (instance_name_inj _ _ _ _ (name_ok_no_delim _ Nn) (name_ok_no_delim _ (PW_tnames _ _ W td Htd))
                Na (wf_tys_names_ok ts fs W _ Hwf) Ek) as [_ ->].
    exact Ht.
  Qed.
  Lemma has_inst_targs_declared : forall st n a, pinv ts st -> name_ok n = true -> tys_names_ok a = true ->
    has_inst_p st (FDecl n a) -> forallb (ty_declared (ikeys st)) a = true.
  Proof.
    intros st n a I Nn Na H. pose proof (has_inst_targs st n a I Nn Na H) as HF.
    apply forallb_forall. intros t Ht. rewrite Forall_forall in HF. apply has_inst_declared. auto.
  Qed.
End InstBase.
