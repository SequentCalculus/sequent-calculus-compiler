(* C01: the composition of the stage theorems with the Fun -> Core link DISCHARGED for the fragment of
   C02_fun2core_correct_fragment2 (guard prog_guard, Model/Fun2CoreGuard.v; definition names distinct): the
   remaining hypotheses are the focusing, shrinking and x86-64 code generation links. *)
From Coq Require Import List ZArith NArith String Ascii Bool Lia.
From SCC Require Import Base.Sexp Lang.AxSyn Lang.FunSyn Lang.CoreSyn Sem.AxSem Sem.CoreSem Sem.FunSem Sem.X86Sem
     Model.Backend Model.Fun2Core Model.Fun2CoreGuard Model.Focus Model.FocusCheck Model.Shrink Model.Linearize Model.LinCheck
     Model.X86 Model.Runtime Proof.RuntimeProof Proof.LinSim Proof.Compose Proof.Fun2CoreRel Proof.Fun2CoreProg.
Import ListNotations.
Open Scope Z_scope.

Theorem compile_correct_fun2core_discharged :
  link_focus -> link_shrink -> link_x86 ->
  forall (p : fcprog) (c : cprog) (f : fsprog) (a : prog) (cs : list xcode) (nargs : nat) (lc lc' : N)
         (args : list Z) (n : nat) (o : obs),
    NoDup (map fdname (fcpdefs p)) -> prog_guard p = true ->
    compile_prog p = Fun2Core.Ok c -> pre_check c = true -> focus_wf c = true ->
    focus_prog c = Backend.Ok f -> shrink_prog f = SOk a -> prog_ok a = true ->
    x86_compile (linearize a) lc = Backend.Ok (cs, nargs, lc') ->
    run_fun n p args = o -> out_ok o ->
    (exists outer inner, fst (run_x86 outer inner cs args) = o) /\
    (Forall (fun pz => in_i64 (snd pz)) (fst o) ->
     bytes_of_string (render_prints (fst o)) = flat_map runtime_bytes (fst o)).
Proof.
  intros focus_preserves shrink_correct x86_codegen_correct
         p c f a cs nargs lc lc' args n o Hnd Hgd Hc Hpre Hwf Hf Hs Hok Hx Hrun OK.
  pose proof (out_ok_defined o OK) as D.
  destruct (chain_to_linear c f a args o OK) as (m & R);
    [exact (fun2core_correct_fragment_lemma p c args n o Hc Hnd Hgd Hrun (defined_final o D))
    |exact (focus_link focus_preserves c f args o Hpre Hwf Hf OK)
    |intros m R; exact (shrink_correct f a m args o Hs R (out_ok_final o OK)) | exact Hok |].
  split; [exact (x86_codegen_correct (linearize a) lc cs nargs lc' args m o Hx R D) | apply render_prints_is_runtime_output].
Qed.
