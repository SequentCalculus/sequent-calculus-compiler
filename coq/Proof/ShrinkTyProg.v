(* Proof/ShrinkTyProg.v (C12, fragment 2) - shrinking preserves typing: for a well-typed focused program
   with consistently spelled identifiers ([names_ok]) and declared parameter / field types ([decls_ok];
   both in Sem/FsFrag2.v), the shrunk program passes the AxCut checker (check_prog = None) and is
   pre-linear: [shrink_typing_fragment2]. *)
From Coq Require Import List ZArith NArith String Bool Lia.
From SCC Require Import Proof.CoreInd.
From SCC Require Import Base.Sexp Lang.SynUtil Lang.CoreSyn Lang.AxSyn Sem.FsCheck Model.Shrink Model.LinCheck
     Model.WtDefs Proof.ShrinkProof Proof.ShrinkRn Proof.ShrinkSimBase Proof.ShrinkSimEta Proof.ShrinkTfv
     Proof.ShrinkSimCases Proof.ShrinkSimProg Proof.ShrinkTyping Proof.ShrinkLabId Proof.ShrinkTyC Proof.ShrinkTyCases
     Proof.ShrinkTyEta Proof.ShrinkTyFv.
From SCC Require Sem.AxCheck.
Import ListNotations.
Open Scope list_scope.

Lemma nodup_by_NoDup_cident : forall l : list cident, FsCheck.nodup_by cident_eqb l = true -> NoDup l.
Proof.
  induction l as [|x r IH]; intros H; [constructor|]. simpl in H. apply andb_prop in H as [H1 H2]. constructor; [|now apply IH].
  intros Hin. apply negb_true_iff in H1. assert (existsb (cident_eqb x) r = true); [|congruence].
  apply existsb_exists. exists x. split; [exact Hin | apply cident_eqb_refl].
Qed.
Lemma NoDup_nodup_by_ident : forall l : list ident, NoDup l -> AxCheck.nodup_by ident_eqb l = true.
Proof.
  induction 1 as [|x r Hni _ IH]; [reflexivity|]. simpl. rewrite IH, andb_true_r. apply negb_true_iff.
  destruct (existsb (ident_eqb x) r) eqn:E; [|reflexivity]. apply existsb_exists in E as (y & Hy & He). apply cident_eqb_eq in He. subst. contradiction.
Qed.
Lemma NoDup_nodup_by_N : forall l : list N, NoDup l -> AxCheck.nodup_by N.eqb l = true.
Proof.
  induction 1 as [|x r Hni _ IH]; [reflexivity|]. simpl. rewrite IH, andb_true_r. apply negb_true_iff.
  destruct (existsb (N.eqb x) r) eqn:E; [|reflexivity]. apply existsb_exists in E as (y & Hy & He). apply N.eqb_eq in He. subst. contradiction.
Qed.
Lemma find_of_NoDup : forall l d, NoDup (map (fun d => dname d) l) -> In d l -> find (fun d' => ident_eqb (dname d') (dname d)) l = Some d.
Proof.
  induction l as [|d0 r IH]; intros d Hn Hin; [contradiction|]. simpl in *. inversion Hn as [|? ? Hni Hn']; subst.
  destruct Hin as [->|Hin]; [now rewrite cident_eqb_refl|].
  destruct (ident_eqb (dname d0) (dname d)) eqn:E; [|now apply IH].
  apply cident_eqb_eq in E. exfalso. apply Hni. rewrite E. apply in_map_iff. eauto.
Qed.

Section TyProg.
Variable p : fsprog.
Notation data := (fspdata p).
Notation codata := (fspcodata p).
Notation defs := (fspdefs p).
Notation m0 := (fspmax p).
Notation D := (data ++ [cont_int]).
Notation ts := (ts_of p).

Lemma defs_rel_all : forall (Pd : def -> Prop) (total : list def) ds used m rest, defs_rel D codata ds used m rest ->
  incl rest total ->
  (forall d, In d ds -> ib_stmt m0 (fsdbody d) = true) -> (m0 <= m)%N ->
  (forall d used m t st', In d ds -> (m0 <= m)%N ->
     shrink_stmt (fsz (fsdbody d)) (mksenv D codata (fst (fsdname d))) (fsdbody d) (mksst m [] used) = SOk (t, st') ->
     In (mkd (fsdname d) (shrink_context codata (fsdctx d)) t) total -> (forall x, In x (s_lifted st') -> In x total) ->
     Pd (mkd (fsdname d) (shrink_context codata (fsdctx d)) t) /\ forall x, In x (s_lifted st') -> Pd x) ->
  forall x, In x rest -> Pd x.
Proof.
  intros Pd total ds used m rest H. induction H as [used m|d r used m t st' rest Hsh Hr IH]; intros Hincl Hib Hm HP x Hx; [contradiction|].
  assert (Hmono : (m <= s_max st')%N).
  { pose proof Hsh as Hsh'. rewrite <- (rn_id (fsdbody d)) in Hsh' at 2.
    apply shrink_stmt_mono in Hsh' as [H1 _]. exact H1. }
  destruct (HP d used m t st' (or_introl eq_refl) Hm Hsh) as [P1 P2].
  { apply Hincl. now left. }
  { intros y Hy. apply Hincl. right. apply in_or_app. now left. }
  destruct Hx as [<-|Hx]; [exact P1|]. apply in_app_or in Hx as [Hx|Hx]; [now apply P2|].
  apply IH; auto.
  - intros y Hy. apply Hincl. right. apply in_or_app. now right.
  - intros d0 H0. apply Hib. now right.
  - lia.
  - intros d0 u0 m1 t1 s1 Hd0. apply HP. now right.
Qed.

Lemma grel_self : forall ctx, NoDup (cids ctx) ->
  grel p (fun _ => True) (fun x => (fun y => y) ((fun y => y) x)) (shrink_context codata ctx) ctx.
Proof.
  intros ctx Hnd b Hb _. exists (shrink_binding codata b). split; [|split; reflexivity]. cbn beta.
  assert (Hin : In (shrink_binding codata b) (shrink_context codata ctx)) by (unfold shrink_context; now apply in_map).
  pose proof (lookup_b_self (shrink_context codata ctx) [] _ ltac:(rewrite ids_shrink_context; exact Hnd) Hin) as Hl.
  rewrite app_nil_r, shrink_binding_var in Hl. exact Hl.
Qed.

Theorem shrink_typing_fragment2 : forall q,
  names_ok p = true -> decls_ok p = true -> wt_fs p = true -> unique_binders p = true -> ids_bounded p = true ->
  shrink_prog p = SOk q ->
  AxCheck.check_prog q = None /\ pre_linear_prog q = true.
Proof.
  intros q Hnames Hdecls Hwt Hub Hib Hsh.
  unfold wt_fs in Hwt. destruct (check_fs p) eqn:Hc; [discriminate|]. clear Hwt. unfold check_fs in Hc.
  apply seq_none in Hc as [C0 Hc]. apply seq_none in Hc as [C1 Hc]. apply seq_none in Hc as [C2 Hc].
  apply seq_none in Hc as [C3 Hc]. apply seq_none in Hc as [C4 C5].
  apply fensure_none in C1. apply fensure_none in C2. apply fensure_none in C3. apply fensure_none in C4.
  pose proof (nodup_types_disjoint _ _ C1) as Hdisj.
  assert (Hcont : find_decl data cont_name = None /\ find_decl codata cont_name = None).
  { apply negb_true_iff in C2. rewrite existsb_app in C2. apply orb_false_iff in C2 as [Ca Cb].
    split; unfold find_decl.
    - destruct (find _ data) as [d|] eqn:E; [|reflexivity]. apply find_some in E as [E1 E2].
      assert (existsb (fun t => cident_eqb (ctname t) cont_name_fs) data = true) by (apply existsb_exists; eauto). congruence.
    - destruct (find _ codata) as [d|] eqn:E; [|reflexivity]. apply find_some in E as [E1 E2].
      assert (existsb (fun t => cident_eqb (ctname t) cont_name_fs) codata = true) by (apply existsb_exists; eauto). congruence. }
  unfold decls_ok in Hdecls. apply andb_prop in Hdecls as [Hpar Hfld].
  assert (Hfields : forall d, In d (data ++ codata) -> forall sg, In sg (ctxtors d) -> forall b, In b (cxargs sg) -> ty_ok data codata (cbty b) = true).
  { intros d Hd sg Hsg b Hb. rewrite forallb_forall in Hfld. pose proof (Hfld d Hd) as H1. rewrite forallb_forall in H1.
    pose proof (H1 sg Hsg) as H2. rewrite forallb_forall in H2. now apply H2. }
  assert (Hxnd : forall d, In d (data ++ codata) -> nodup_by cident_eqb (map cxname (ctxtors d)) = true).
  { intros d Hd. rewrite forallb_forall in C3. now apply C3. }
  pose proof Hsh as Hq.
  unfold shrink_prog in Hsh. destruct (_ || _); [discriminate|].
  destruct (shrink_defs defs D codata (map fsdname defs) m0 []) as [[defs' mx]|] eqn:Esd; [|discriminate]. cbn [sbind] in Hsh.
  apply shrink_defs_rel in Esd as (rest & Eout & Hrel). cbn [frev rev_append app] in Eout. subst defs'.
  injection Hsh as <-.
  assert (Hibd : forall d, In d defs -> ctx_le m0 (fsdctx d) = true /\ ib_stmt m0 (fsdbody d) = true).
  { intros d Hd. unfold ids_bounded in Hib. rewrite forallb_forall in Hib. apply Hib in Hd.
    apply andb_prop in Hd as [Hd H2]. apply andb_prop in Hd as [_ H1]. auto. }
  assert (Hndn : NoDup (map (fun d => dname d) rest)) by (apply (lift_label_fresh_id p _ (nodup_by_NoDup_cident _ C4) Hq)).
  assert (Hds_find : forall d, In d rest -> find (fun d' => ident_eqb (dname d') (dname d)) rest = Some d) by (intros d Hd; now apply find_of_NoDup).
  assert (Hds_defs : forall d, In d defs -> exists t, In (mkd (fsdname d) (shrink_context codata (fsdctx d)) t) rest).
  { intros d Hd. destruct (defs_rel_facts p _ _ _ _ Hrel (fun d0 H0 => proj2 (Hibd d0 H0)) (N.le_refl _) d Hd) as (u & md & t & st' & _ & _ & F3 & _). eauto. }
  assert (Hall : forall x, In x rest -> lifted_ok p rest x).
  { apply (defs_rel_all (lifted_ok p rest) rest _ _ _ _ Hrel (incl_refl _) (fun d0 H0 => proj2 (Hibd d0 H0)) (N.le_refl _)).
    intros d used m t st' Hd Hm Hshd Hint Hlin.
    pose proof (check_defs_in p _ d C5 Hd) as Hck.
    pose proof (nodup_by_NoDup _ (check_defs_nodup p _ d C5 Hd)) as Hnd.
    unfold unique_binders in Hub. rewrite forallb_forall in Hub. pose proof (Hub d Hd) as Hu. apply andb_prop in Hu as [_ Hu].
    destruct (Hibd d Hd) as [Hcl Hibb].
    unfold names_ok in Hnames. rewrite forallb_forall in Hnames. pose proof (Hnames d Hd) as Hnc.
    rewrite forallb_forall in Hpar. pose proof (Hpar d Hd) as Hpd. rewrite forallb_forall in Hpd.
    assert (Hids : forall i, In i (cids (fsdctx d)) -> ~ In i (cids (@nil cbinding)) /\ (i <= m0)%N).
    { intros i Hi. split; [intros [] | eapply ctx_le_ids; eauto]. }
    set (st0 := mksst m [] used) in *.
    pose proof (inv_push_list p (fsdctx d) [] _ _ st0 (inv_nil p st0 Hm) Hnd Hids) as Hinv. rewrite app_nil_r in Hinv.
    rewrite <- (rn_id (fsdbody d)) in Hshd at 2.
    destruct (TL_all p rest Hdisj Hcont Hfields Hxnd Hds_find Hds_defs _ (fsdbody d) (fst (fsdname d)) (fsdctx d) _ _ st0 t st' (shrink_context codata (fsdctx d))
                Hinv Hck Hu Hibb Hnc Hpd Hshd) as (T1 & T2 & T3).
    { eapply grel_weaken; [apply (grel_self _ Hnd) | intros; exact I]. }
    { intros i Hi. rewrite ids_shrink_context in Hi. split; [now left|]. destruct (Hids i Hi). cbn [st0 s_max]. lia. }
    { exact Hlin. }
    { intros x []. }
    rewrite arn_id in T1. split; [|exact T3].
    split; [exact T1|]. split; [exact T2|]. split; [cbn [dctx]; rewrite ids_shrink_context; exact Hnd|].
    cbn [dctx]. unfold shrink_context. rewrite forallb_map. apply forallb_forall. intros b Hb. apply (ty_declared_shrink p Hdisj Hcont). now apply Hpd. }
  assert (Hdefck : forall x, In x rest -> AxCheck.check_def ts rest x = None).
  { intros x Hx. destruct (Hall x Hx) as (L1 & L2 & L3 & L4). unfold AxCheck.check_def.
    rewrite (NoDup_nodup_by_N _ L3), L4. cbn [AxCheck.ensure negb]. rewrite L1.
    destruct (AxCheck.is_lifted_name (dname x)); [|reflexivity].
    rewrite minus_n_nil; [reflexivity|]. intros y Hy. eapply fv_scoped; eauto. }
  split.
  - unfold AxCheck.check_prog. cbn [ptypes pdefs].
    assert (CT : AxCheck.check_types ts = None) by (apply check_types_shrink; assumption).
    pose proof (NoDup_nodup_by_ident _ Hndn) as Hnn. change (map (fun d : def => dname d) rest) with (map dname rest) in Hnn.
    fold ts. rewrite CT, Hnn. cbn [AxCheck.ensure].
    match goal with |- ?F rest = None => assert (Hgo : forall l, (forall d, In d l -> In d rest) -> F l = None) end.
    { induction l as [|d r IH]; intros IN; [reflexivity|].
      rewrite (Hdefck d (IN d (or_introl eq_refl))). apply IH. intros d' H. apply IN. now right. }
    apply Hgo. auto.
  - unfold pre_linear_prog. cbn [pdefs]. apply forallb_forall. intros x Hx. apply (Hall x Hx).
Qed.
End TyProg.
