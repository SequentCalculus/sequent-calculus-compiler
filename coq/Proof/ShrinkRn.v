(* Proof/ShrinkRn.v (C04, fragment 2) - renamings as FUNCTIONS on identifiers.
   core_lang's SubstVar (Model/Shrink.v: subst_stmt) and axcut's Subst (ax_subst) are instances of
   [rn_stmt f] / [arn f] for f = subst_ident sub / ax_subst_ident sub; renamings compose, so the
   statement shrinking is finally called on is always [rn_stmt rho s] for a sub-statement s of the
   input and the AxCut statement that runs is [arn theta (shrink (rn_stmt rho s))].
   Also: [occurs x s] (x appears in a non-binding position), [pfresh A t] (binders of an AxCut
   statement fresh along every path w.r.t. the ids A). *)
From Coq Require Import List ZArith NArith String Bool Lia.
From SCC Require Import Base.Sexp Lang.SynUtil Lang.CoreSyn Lang.AxSyn Sem.FsCheck Sem.FsFrag2 Model.Shrink Proof.ShrinkProof.
Import ListNotations.
From SCC Require Export Sem.FsFrag2.
Open Scope list_scope.

Definition rn_binding (f : cident -> cident) (b : cbinding) : cbinding := mkcb (f (cbvar b)) (cbchi b) (cbty b).
Definition rn_ctx (f : cident -> cident) (c : cctx) : cctx := map (rn_binding f) c.
Fixpoint rn_term (f : cident -> cident) (t : fsterm) : fsterm :=
  match t with
  | FsXVar c v ty => FsXVar c (f v) ty
  | FsLit n => FsLit n
  | FsOp a o b => FsOp (f a) o (f b)
  | FsMu c v s ty => FsMu c v (rn_stmt f s) ty
  | FsXtor c x args ty => FsXtor c x (rn_ctx f args) ty
  | FsXCase c cls ty =>
      FsXCase c ((fix go (l : list fsclause) : list fsclause :=
                    match l with [] => [] | y :: r => rn_clause f y :: go r end) cls) ty
  end
with rn_clause (f : cident -> cident) (cl : fsclause) : fsclause :=
  match cl with FsClause c x ctx body => FsClause c x ctx (rn_stmt f body) end
with rn_stmt (f : cident -> cident) (s : fsstmt) : fsstmt :=
  match s with
  | FsCut p ty k => FsCut (rn_term f p) ty (rn_term f k)
  | FsIfC so a b t e => FsIfC so (f a) (option_map f b) (rn_stmt f t) (rn_stmt f e)
  | FsPrint nl a next => FsPrint nl (f a) (rn_stmt f next)
  | FsCall g args => FsCall g (rn_ctx f args)
  | FsExit v => FsExit (f v)
  end.
Definition rn_clauses (f : cident -> cident) (cls : list fsclause) : list fsclause := map (rn_clause f) cls.
Lemma rn_term_xcase : forall f c cls t, rn_term f (FsXCase c cls t) = FsXCase c (rn_clauses f cls) t.
Proof. intros. reflexivity. Qed.

Lemma subst_ctx_rn : forall sub c, subst_ctx sub c = rn_ctx (subst_ident sub) c.
Proof. reflexivity. Qed.

Lemma subst_is_rn_all : forall sub,
  (forall t, subst_term sub t = rn_term (subst_ident sub) t) /\
  (forall c, subst_clause sub c = rn_clause (subst_ident sub) c) /\
  (forall s, subst_stmt sub s = rn_stmt (subst_ident sub) s).
Proof.
  intros sub. apply fs_mutind; intros; simpl; try reflexivity.
  - now rewrite H.
  - f_equal. induction H as [|y r Hy _ IH]; [reflexivity|]. now rewrite Hy, IH.
  - now rewrite H.
  - now rewrite H, H0.
  - now rewrite H, H0.
  - now rewrite H.
Qed.
Lemma subst_is_rn : forall sub s, subst_stmt sub s = rn_stmt (subst_ident sub) s.
Proof. intros. apply subst_is_rn_all. Qed.

Lemma rn_ctx_comp : forall f g c, rn_ctx f (rn_ctx g c) = rn_ctx (fun x => f (g x)) c.
Proof. intros. unfold rn_ctx. rewrite map_map. reflexivity. Qed.
Lemma rn_comp_all : forall f g,
  (forall t, rn_term f (rn_term g t) = rn_term (fun x => f (g x)) t) /\
  (forall c, rn_clause f (rn_clause g c) = rn_clause (fun x => f (g x)) c) /\
  (forall s, rn_stmt f (rn_stmt g s) = rn_stmt (fun x => f (g x)) s).
Proof.
  intros f g. apply fs_mutind; intros; simpl; try reflexivity.
  - now rewrite H.
  - now rewrite rn_ctx_comp.
  - f_equal. induction H as [|y r Hy _ IH]; [reflexivity|]. now rewrite Hy, IH.
  - now rewrite H.
  - now rewrite H, H0.
  - rewrite H, H0. destruct b; reflexivity.
  - now rewrite H.
  - now rewrite rn_ctx_comp.
Qed.
Lemma rn_comp : forall f g s, rn_stmt f (rn_stmt g s) = rn_stmt (fun x => f (g x)) s.
Proof. intros. apply rn_comp_all. Qed.

Lemma rn_ctx_id : forall c, rn_ctx (fun x => x) c = c.
Proof. induction c as [|[v ch t] r IH]; simpl; [reflexivity|]. unfold rn_binding at 1. simpl. now rewrite IH. Qed.
Lemma rn_id_all :
  (forall t, rn_term (fun x => x) t = t) /\ (forall c, rn_clause (fun x => x) c = c) /\ (forall s, rn_stmt (fun x => x) s = s).
Proof.
  apply fs_mutind; intros; simpl; try reflexivity.
  - now rewrite H.
  - now rewrite rn_ctx_id.
  - f_equal. induction H as [|y r Hy _ IH]; [reflexivity|]. now rewrite Hy, IH.
  - now rewrite H.
  - now rewrite H, H0.
  - rewrite H, H0. destruct b; reflexivity.
  - now rewrite H.
  - now rewrite rn_ctx_id.
Qed.
Lemma rn_id : forall s, rn_stmt (fun x => x) s = s.
Proof. apply rn_id_all. Qed.

Lemma cvars_rn_ctx : forall f c, cvars (rn_ctx f c) = map f (cvars c).
Proof. intros. unfold cvars, rn_ctx. rewrite !map_map. reflexivity. Qed.
Lemma length_rn_ctx : forall f c, List.length (rn_ctx f c) = List.length c.
Proof. intros. apply map_length. Qed.

(* clauses: names and contexts survive *)
Lemma find_rn_clauses : forall f x cls,
  find (fun c => cident_eqb (clause_xtor c) x) (rn_clauses f cls)
  = option_map (rn_clause f) (find (fun c => cident_eqb (clause_xtor c) x) cls).
Proof.
  intros f x cls. induction cls as [|[c y ctx b] r IH]; simpl; [reflexivity|].
  destruct (cident_eqb y x); [reflexivity | exact IH].
Qed.

Definition occ_ctx (x : cident) (c : cctx) : Prop := In x (cvars c).
Fixpoint occ_term (x : cident) (t : fsterm) : Prop :=
  match t with
  | FsXVar _ v _ => v = x
  | FsLit _ => False
  | FsOp a _ b => a = x \/ b = x
  | FsMu _ _ s _ => occurs x s
  | FsXtor _ _ args _ => occ_ctx x args
  | FsXCase _ cls _ =>
      (fix go (l : list fsclause) : Prop := match l with [] => False | y :: r => occ_clause x y \/ go r end) cls
  end
with occ_clause (x : cident) (cl : fsclause) : Prop :=
  match cl with FsClause _ _ _ body => occurs x body end
with occurs (x : cident) (s : fsstmt) : Prop :=
  match s with
  | FsCut p _ k => occ_term x p \/ occ_term x k
  | FsIfC _ a b t e => a = x \/ b = Some x \/ occurs x t \/ occurs x e
  | FsPrint _ a next => a = x \/ occurs x next
  | FsCall _ args => occ_ctx x args
  | FsExit v => v = x
  end.
Definition occ_clauses (x : cident) (cls : list fsclause) : Prop := exists c, In c cls /\ occ_clause x c.
Lemma occ_term_xcase : forall x c cls t, occ_term x (FsXCase c cls t) <-> occ_clauses x cls.
Proof.
  intros. simpl. unfold occ_clauses. induction cls as [|y r IH]; simpl.
  - split; [tauto | intros (c0 & [] & _)].
  - rewrite IH. split.
    + intros [H | (c0 & Hi & Ho)]; [exists y; auto | exists c0; auto].
    + intros (c0 & [<- | Hi] & Ho); [auto | right; exists c0; auto].
Qed.

Definition arn_binding (f : ident -> ident) (b : binding) : binding := mkb (f (bvar b)) (bchi b) (bty b).
Definition arn_ctx (f : ident -> ident) (c : ctx) : ctx := map (arn_binding f) c.
Fixpoint arn (f : ident -> ident) (s : stmt) : stmt :=
  let go_cls := fix go (l : list (ident * ctx * stmt)) : list (ident * ctx * stmt) :=
    match l with
    | [] => []
    | (x, c, b) :: r => (x, c, arn f b) :: go r
    end in
  match s with
  | Substitute re next => Substitute (map (fun p => (arn_binding f (fst p), f (snd p))) re) (arn f next)
  | Call l args => Call l (arn_ctx f args)
  | Let v t tag args next => Let v t tag (arn_ctx f args) (arn f next)
  | Switch v t cls => Switch (f v) t (go_cls cls)
  | Create v t env cls next => Create v t (option_map (arn_ctx f) env) (go_cls cls) (arn f next)
  | Invoke v tag t args => Invoke (f v) tag t (arn_ctx f args)
  | Literal n v next => Literal n v (arn f next)
  | Op a o b v next => Op (f a) o (f b) v (arn f next)
  | PrintI64 nl v next => PrintI64 nl (f v) (arn f next)
  | IfC so a b t e => IfC so (f a) (option_map f b) (arn f t) (arn f e)
  | Exit v => Exit (f v)
  end.
Definition arn_cls (f : ident -> ident) (cls : list (ident * ctx * stmt)) : list (ident * ctx * stmt) :=
  map (fun c => (fst (fst c), snd (fst c), arn f (snd c))) cls.
Lemma arn_switch : forall f v t cls, arn f (Switch v t cls) = Switch (f v) t (arn_cls f cls).
Proof. intros. simpl. f_equal. induction cls as [|[[x c] b] r IH]; simpl; [reflexivity|]. now rewrite IH. Qed.
Lemma arn_create : forall f v t env cls n,
  arn f (Create v t env cls n) = Create v t (option_map (arn_ctx f) env) (arn_cls f cls) (arn f n).
Proof. intros. simpl. f_equal. induction cls as [|[[x c] b] r IH]; simpl; [reflexivity|]. now rewrite IH. Qed.

Lemma ax_subst_is_arn : forall sub s, ax_subst sub s = arn (ax_subst_ident sub) s.
Proof.
  intros sub. apply stmt_ind'; intros; simpl; try reflexivity; try (now rewrite H); try (now rewrite H, H0).
  - f_equal. induction H as [|[[x c] b] r Hb _ IH]; [reflexivity|]. simpl in Hb. now rewrite Hb, IH.
  - rewrite H0. f_equal. induction H as [|[[x c] b] r Hb _ IH]; [reflexivity|]. simpl in Hb. now rewrite Hb, IH.
Qed.
Lemma arn_ctx_comp : forall f g c, arn_ctx f (arn_ctx g c) = arn_ctx (fun x => f (g x)) c.
Proof. intros. unfold arn_ctx. rewrite map_map. reflexivity. Qed.
Lemma arn_comp : forall f g s, arn f (arn g s) = arn (fun x => f (g x)) s.
Proof.
  intros f g. apply stmt_ind'; intros; simpl; try reflexivity;
    try (now rewrite ?arn_ctx_comp, H); try (now rewrite H, H0).
  - rewrite H, map_map. reflexivity.
  - now rewrite arn_ctx_comp.
  - f_equal. induction H as [|[[x c] b] r Hb _ IH]; [reflexivity|]. simpl in Hb. now rewrite Hb, IH.
  - rewrite H0. f_equal.
    + destruct env; simpl; [now rewrite arn_ctx_comp | reflexivity].
    + induction H as [|[[x c] b] r Hb _ IH]; [reflexivity|]. simpl in Hb. now rewrite Hb, IH.
  - now rewrite arn_ctx_comp.
  - rewrite H, H0. destruct b; reflexivity.
Qed.
Lemma arn_ctx_id : forall c, arn_ctx (fun x => x) c = c.
Proof. induction c as [|[v ch t] r IH]; simpl; [reflexivity|]. unfold arn_binding at 1. simpl. now rewrite IH. Qed.
Lemma arn_id : forall s, arn (fun x => x) s = s.
Proof.
  apply stmt_ind'; intros; simpl; try reflexivity; try (now rewrite ?arn_ctx_id, H); try (now rewrite H, H0).
  - rewrite H. f_equal. induction re as [|[[v ch t] o] r IH]; simpl; [reflexivity|]. unfold arn_binding at 1. simpl. now rewrite IH.
  - now rewrite arn_ctx_id.
  - f_equal. induction H as [|[[x c] b] r Hb _ IH]; [reflexivity|]. simpl in Hb. now rewrite Hb, IH.
  - rewrite H0. f_equal.
    + destruct env; simpl; [now rewrite arn_ctx_id | reflexivity].
    + induction H as [|[[x c] b] r Hb _ IH]; [reflexivity|]. simpl in Hb. now rewrite Hb, IH.
  - now rewrite arn_ctx_id.
  - rewrite H, H0. destruct b; reflexivity.
Qed.
Lemma vars_arn_ctx : forall f c, vars (arn_ctx f c) = map f (vars c).
Proof. intros. unfold vars, arn_ctx. rewrite !map_map. reflexivity. Qed.

Definition memN (x : N) (l : list N) : bool := existsb (N.eqb x) l.
Fixpoint fresh_list (A : list N) (xs : list N) : bool :=
  match xs with
  | [] => true
  | x :: r => negb (memN x A) && fresh_list (x :: A) r
  end.
Fixpoint pfresh (A : list N) (s : stmt) : bool :=
  let go := fix go (A : list N) (l : list (ident * ctx * stmt)) : bool :=
    match l with
    | [] => true
    | (_, c, b) :: r => fresh_list A (ids c) && pfresh (rev_append (ids c) A) b && go A r
    end in
  match s with
  | Substitute _ _ => true      (* not produced by shrinking; of no interest here *)
  | Call _ _ | Invoke _ _ _ _ | Exit _ => true
  | Let v _ _ _ n | Literal _ v n | Op _ _ _ v n => negb (memN (idn v) A) && pfresh (idn v :: A) n
  | Switch _ _ cls => go A cls
  | Create v _ (Some _) cls n => true      (* annotated closure environments: after linearization only *)
  | Create v _ None cls n => go A cls && negb (memN (idn v) A) && pfresh (idn v :: A) n
  | PrintI64 _ _ n => pfresh A n
  | IfC _ _ _ t e => pfresh A t && pfresh A e
  end.
Definition pfresh_cls (A : list N) (cls : list (ident * ctx * stmt)) : bool :=
  forallb (fun c => fresh_list A (ids (snd (fst c))) && pfresh (rev_append (ids (snd (fst c))) A) (snd c)) cls.
Lemma pfresh_switch : forall A v t cls, pfresh A (Switch v t cls) = pfresh_cls A cls.
Proof. intros. simpl. unfold pfresh_cls. induction cls as [|[[x c] b] r IH]; simpl; [reflexivity|]. now rewrite IH. Qed.
Lemma pfresh_create : forall A v t cls n,
  pfresh A (Create v t None cls n) = pfresh_cls A cls && negb (memN (idn v) A) && pfresh (idn v :: A) n.
Proof.
  intros. simpl. f_equal. f_equal. unfold pfresh_cls. induction cls as [|[[x c] b] r IH]; simpl; [reflexivity|]. now rewrite IH.
Qed.
Lemma forallb_map : forall {X Y} (f : Y -> bool) (g : X -> Y) l, forallb f (map g l) = forallb (fun x => f (g x)) l.
Proof. induction l as [|x r IH]; simpl; [reflexivity|]. now rewrite IH. Qed.
Lemma pfresh_arn : forall f s A, pfresh A (arn f s) = pfresh A s.
Proof.
  intros f. apply (stmt_ind' (fun s => forall A, pfresh A (arn f s) = pfresh A s)); intros; try reflexivity;
    try (simpl; now rewrite ?H, ?H0).
  - rewrite arn_switch, !pfresh_switch. unfold pfresh_cls, arn_cls. rewrite forallb_map.
    induction H as [|[[x c] b] r Hb _ IH]; [reflexivity|]. simpl in *. now rewrite Hb, IH.
  - rewrite arn_create. destruct env as [ce|]; [reflexivity|]. cbn [option_map]. rewrite !pfresh_create, H0. f_equal. f_equal.
    unfold pfresh_cls, arn_cls. rewrite forallb_map.
    induction H as [|[[x c] b] r Hb _ IH]; [reflexivity|]. simpl in *. now rewrite Hb, IH.
Qed.
Lemma in_rev_append : forall {X} (a b : list X) x, In x (rev_append a b) <-> In x a \/ In x b.
Proof. intros. rewrite rev_append_rev, in_app_iff, <- in_rev. tauto. Qed.
Lemma memN_in : forall x l, memN x l = true <-> In x l.
Proof.
  intros. unfold memN. rewrite existsb_exists. split.
  - intros (y & Hy & He). apply N.eqb_eq in He. now subst.
  - intros H. exists x. split; [exact H | apply N.eqb_refl].
Qed.
Lemma memN_false : forall x l, memN x l = false <-> ~ In x l.
Proof. intros. rewrite <- memN_in. destruct (memN x l); split; intros H; auto; try discriminate. exfalso. apply H. reflexivity. Qed.

Lemma fresh_ids_ext : forall xs S S', (forall i, mem_id i S = mem_id i S') -> fresh_ids S xs = fresh_ids S' xs.
Proof.
  induction xs as [|x r IH]; intros S S' H; [reflexivity|]. simpl. rewrite (H x). f_equal.
  apply IH. intros i. unfold mem_id in *. simpl. now rewrite H.
Qed.
Definition ub_clause (scope : list N) (cl : fsclause) : bool :=
  match cl with FsClause _ _ ctx body => fresh_ids scope (cids ctx) && ub_stmt (rev_append (cids ctx) scope) body end.
Definition ub_clauses (scope : list N) (cls : list fsclause) : bool := forallb (ub_clause scope) cls.
Lemma ub_term_xcase : forall S c cls t, ub_term S (FsXCase c cls t) = ub_clauses S cls.
Proof.
  intros. simpl. unfold ub_clauses. induction cls as [|[c' x ctx b] r IH]; [reflexivity|]. simpl. now rewrite IH.
Qed.
Lemma mem_id_rev_append : forall i a S S', (forall j, mem_id j S = mem_id j S') ->
  mem_id i (rev_append a S) = mem_id i (rev_append a S').
Proof.
  intros i a. induction a as [|x r IH]; intros S S' H; simpl; [apply H|].
  apply IH. intros j. unfold mem_id in *. simpl. now rewrite H.
Qed.
Lemma ub_ext_all :
  (forall t S S', (forall i, mem_id i S = mem_id i S') -> ub_term S t = ub_term S' t) /\
  (forall c S S', (forall i, mem_id i S = mem_id i S') -> ub_clause S c = ub_clause S' c) /\
  (forall s S S', (forall i, mem_id i S = mem_id i S') -> ub_stmt S s = ub_stmt S' s).
Proof.
  apply fs_mutind; intros; try reflexivity.
  - simpl. rewrite (H0 (cid_id v)). f_equal. apply H. intros i. unfold mem_id in *. simpl. now rewrite H0.
  - rewrite !ub_term_xcase. unfold ub_clauses. induction H as [|y r Hy _ IH]; [reflexivity|]. simpl.
    rewrite (Hy S S' H0), IH. reflexivity.
  - simpl. rewrite (fresh_ids_ext _ S S' H0). f_equal. apply H. intros i. now apply mem_id_rev_append.
  - simpl. now rewrite (H S S' H1), (H0 S S' H1).
  - simpl. now rewrite (H S S' H1), (H0 S S' H1).
  - simpl. now apply H.
Qed.
Lemma ub_stmt_ext : forall s S S', (forall i, mem_id i S = mem_id i S') -> ub_stmt S s = ub_stmt S' s.
Proof. apply ub_ext_all. Qed.
Lemma mem_id_in : forall x l, mem_id x l = true <-> In x l.
Proof. exact memN_in. Qed.
Lemma mem_id_ext_of_in : forall S S', (forall i, In i S <-> In i S') -> forall i, mem_id i S = mem_id i S'.
Proof.
  intros S S' H i. destruct (mem_id i S) eqn:E1, (mem_id i S') eqn:E2; try reflexivity.
  - apply mem_id_in in E1. apply H in E1. apply mem_id_in in E1. congruence.
  - apply mem_id_in in E2. apply H in E2. apply mem_id_in in E2. congruence.
Qed.

(* binders of a statement are outside the scope *)
Lemma fresh_ids_spec : forall xs S, fresh_ids S xs = true -> NoDup xs /\ (forall x, In x xs -> ~ In x S).
Proof.
  induction xs as [|x r IH]; intros S H; simpl in H.
  - split; [constructor | intros x []].
  - apply andb_prop in H as [H1 H2]. apply negb_true_iff in H1.
    assert (Hx : ~ In x S) by (intros Hin; apply mem_id_in in Hin; congruence).
    destruct (IH _ H2) as [Hnd Hni]. split.
    + constructor; [|exact Hnd]. intros Hin. apply (Hni x Hin). now left.
    + intros y [<-|Hy]; [exact Hx|]. intros HA. apply (Hni y Hy). now right.
Qed.
Lemma ub_notin_all :
  (forall t S, ub_term S t = true -> forall i, In i (cbinders_term t) -> ~ In i S) /\ (forall c S, ub_clause S c = true -> forall i, In i (cids (clause_ctx c) ++ cbinders (clause_body c)) -> ~ In i S) /\ (forall s S, ub_stmt S s = true -> forall i, In i (cbinders s) -> ~ In i S).
Proof.
  apply fs_mutind; intros; try (simpl in *; contradiction).
  - simpl in H0, H1. apply andb_prop in H0 as [Ha Hb]. apply negb_true_iff in Ha.
    destruct H1 as [<-|H1].
    + intros Hin. apply mem_id_in in Hin. congruence.
    + intros Hin. apply (H _ Hb i H1). now right.
  - rewrite ub_term_xcase in H0. rewrite cbinders_term_xcase in H1. unfold cbinders_clauses in H1.
    apply in_flat_map in H1 as (cl & Hcl & Hi). unfold ub_clauses in H0. rewrite forallb_forall in H0.
    rewrite Forall_forall in H. eapply H; eauto.
  - simpl in H0, H1. apply andb_prop in H0 as [Ha Hb]. apply in_app_or in H1 as [H1|H1].
    + apply fresh_ids_spec in Ha as [_ Ha]. now apply Ha.
    + intros Hin. apply (H _ Hb i H1). apply in_rev_append. now right.
  - simpl in H1, H2. apply andb_prop in H1 as [Ha Hb]. apply in_app_or in H2 as [H2|H2]; eauto.
  - simpl in H1, H2. apply andb_prop in H1 as [Ha Hb]. apply in_app_or in H2 as [H2|H2]; eauto.
  - simpl in *. eauto.
Qed.
Lemma ub_notin : forall s S, ub_stmt S s = true -> forall i, In i (cbinders s) -> ~ In i S.
Proof. apply ub_notin_all. Qed.

Definition nc_clauses (L : list cident) (cls : list fsclause) : bool :=
  forallb (fun cl => nc_stmt (cvars (clause_ctx cl) ++ L) (clause_body cl)) cls.
Lemma nc_term_xcase : forall L c cls t, nc_term L (FsXCase c cls t) = nc_clauses L cls.
Proof.
  intros. simpl. unfold nc_clauses. induction cls as [|[c' x ctx b] r IH]; [reflexivity|]. simpl. now rewrite IH.
Qed.
Lemma nc_clauses_in : forall L cls cl, nc_clauses L cls = true -> In cl cls ->
  nc_stmt (cvars (clause_ctx cl) ++ L) (clause_body cl) = true.
Proof. intros L cls cl H Hin. unfold nc_clauses in H. rewrite forallb_forall in H. now apply H. Qed.

Lemma nc_cut : forall L p ty k, nc_stmt L (FsCut p ty k) = true -> nc_term L p = true /\ nc_term L k = true.
Proof. intros L p ty k H. simpl in H. now apply andb_prop in H. Qed.
Lemma nc_cut_mu_l : forall L c v s t ty k, nc_stmt L (FsCut (FsMu c v s t) ty k) = true -> nc_stmt (v :: L) s = true.
Proof. intros. apply nc_cut in H as [H _]. exact H. Qed.
Lemma nc_cut_mu_r : forall L p ty c v s t, nc_stmt L (FsCut p ty (FsMu c v s t)) = true -> nc_stmt (v :: L) s = true.
Proof. intros. apply nc_cut in H as [_ H]. exact H. Qed.
Lemma nc_cut_case_l : forall L c cls t ty k, nc_stmt L (FsCut (FsXCase c cls t) ty k) = true -> nc_clauses L cls = true.
Proof. intros. apply nc_cut in H as [H _]. now rewrite nc_term_xcase in H. Qed.
Lemma nc_cut_case_r : forall L p ty c cls t, nc_stmt L (FsCut p ty (FsXCase c cls t)) = true -> nc_clauses L cls = true.
Proof. intros. apply nc_cut in H as [_ H]. now rewrite nc_term_xcase in H. Qed.
(* what a cut says of its two terms, whichever side they stand on *)
Lemma sided_rn : forall f s p k a b, sided s p k a b -> sided s (rn_term f p) (rn_term f k) (rn_term f a) (rn_term f b).
Proof. intros f [|] p k a b [-> ->]; split; reflexivity. Qed.
Lemma occ_sided : forall s p ty k a b y, sided s p k a b -> occ_term y a \/ occ_term y b -> occurs y (FsCut p ty k).
Proof. intros [|] p ty k a b y [-> ->] H; cbn [occurs]; tauto. Qed.
Lemma ub_sided : forall S s p ty k a b, sided s p k a b -> ub_stmt S (FsCut p ty k) = true ->
  ub_term S a = true /\ ub_term S b = true.
Proof.
  intros S s p ty k a b Hor H. cbn [ub_stmt] in H. apply andb_prop in H as [Hp Hk].
  exact (sided_both (fun t => ub_term S t = true) _ _ _ _ _ Hor Hp Hk).
Qed.
Lemma nc_sided : forall L s p ty k a b, sided s p k a b -> nc_stmt L (FsCut p ty k) = true ->
  nc_term L a = true /\ nc_term L b = true.
Proof.
  intros L s p ty k a b Hor H. apply nc_cut in H as [Hp Hk]. exact (sided_both (fun t => nc_term L t = true) _ _ _ _ _ Hor Hp Hk).
Qed.
Lemma opp_invol : forall s, opp (opp s) = s.
Proof. intros [|]; reflexivity. Qed.
Lemma nc_print : forall L nl a nx, nc_stmt L (FsPrint nl a nx) = true -> nc_stmt L nx = true.
Proof. intros L nl a nx H. simpl in H. now apply andb_prop in H. Qed.
Lemma nc_ifc : forall L so a b t e, nc_stmt L (FsIfC so a b t e) = true -> nc_stmt L t = true /\ nc_stmt L e = true.
Proof.
  intros L so a b t e H. simpl in H. apply andb_prop in H as [H He]. apply andb_prop in H as [_ Ht]. auto.
Qed.

(* only membership in the scope matters *)
Lemma fresh_list_ext : forall xs A A', (forall i, memN i A = memN i A') -> fresh_list A xs = fresh_list A' xs.
Proof.
  induction xs as [|x r IH]; intros A A' H; [reflexivity|]. simpl. rewrite (H x). f_equal.
  apply IH. intros i. unfold memN in *. simpl. now rewrite H.
Qed.
Lemma memN_rev_append : forall i a A A', (forall j, memN j A = memN j A') -> memN i (rev_append a A) = memN i (rev_append a A').
Proof.
  intros i a. induction a as [|x r IH]; intros A A' H; simpl; [apply H|].
  apply IH. intros j. unfold memN in *. simpl. now rewrite H.
Qed.
Lemma pfresh_ext : forall s A A', (forall i, memN i A = memN i A') -> pfresh A s = pfresh A' s.
Proof.
  apply (stmt_ind' (fun s => forall A A', (forall i, memN i A = memN i A') -> pfresh A s = pfresh A' s)); intros; try reflexivity.
  - simpl. rewrite (H0 (idn v)). f_equal. apply H. intros i. unfold memN in *. simpl. now rewrite H0.
  - rewrite !pfresh_switch. unfold pfresh_cls. induction H as [|[[x c] b] r Hb _ IH]; [reflexivity|]. simpl in *.
    rewrite (fresh_list_ext _ A A' H0), IH. f_equal. f_equal. apply Hb. intros i. now apply memN_rev_append.
  - destruct env as [ce|]; [reflexivity|]. rewrite !pfresh_create. rewrite (H1 (idn v)).
    rewrite (H0 (idn v :: A) (idn v :: A')); [|intros i; unfold memN in *; simpl; now rewrite H1]. f_equal. f_equal.
    unfold pfresh_cls. induction H as [|[[x c] b] r Hb _ IH]; [reflexivity|]. simpl in *.
    rewrite (fresh_list_ext _ A A' H1), IH. f_equal. f_equal. apply Hb. intros i. now apply memN_rev_append.
  - simpl. rewrite (H0 (idn v)). f_equal. apply H. intros i. unfold memN in *. simpl. now rewrite H0.
  - simpl. rewrite (H0 (idn v)). f_equal. apply H. intros i. unfold memN in *. simpl. now rewrite H0.
  - simpl. now apply H.
  - simpl. rewrite (H A A' H1), (H0 A A' H1). reflexivity.
Qed.
Lemma memN_ext_of_in : forall A A', (forall i, In i A <-> In i A') -> forall i, memN i A = memN i A'.
Proof. exact mem_id_ext_of_in. Qed.
