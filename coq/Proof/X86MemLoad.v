(* Refinement of the code of `x_load` (memory.rs load / load_register / load_fields / load_values /
   load_value / load_field, Switch and Invoke of AxCut) on the x86-64 ISA semantics to the abstract
   allocator of Model/Heap.v:
     x86_load_values_rev_ok   the loads of one block (Release: plain loads; Share: every pointer slot
                              loaded is shared), variables in registers or spill slots;
     x86_load_block_ok        one block of an object: (release,) (link,) loads (and shares), the block pointer in a register;
     x86_lf_blk_ok            the same with the block pointer in a register or in a spill slot (then
                              TEMPORARY_TEMP is evacuated to SPILL_TEMP once and restored after the last block);
     x86_load_one_block_ok    `x_load` of 1..3 variables = `Heap.load p` (header test, then release or
                              decrement-and-share), the object pointer in a register or a spill slot. *)
From Coq Require Import List ZArith NArith String Bool Lia FMapPositive.
From SCC Require Import Base.Sexp Lang.AxSyn Sem.AxSem Model.Backend Model.X86 Sem.X86Sem Generated.Constants
  Proof.X86State Proof.X86Sel Proof.X86Mem Proof.X86MemFrame Proof.X86MemStore Proof.X86StackFrame.
From SCC Require Model.Heap.
Import ListNotations.
Open Scope list_scope.
Open Scope Z_scope.

(* the abstract effect of load_values *)
Definition share_on (m : load_mode) (b : binding) : bool :=
  match m, bchi b with Share, Ext => false | Share, _ => true | Release, _ => false end.
(* in emission order: the last variable (field ff-1) first *)
Fixpoint lv_abs (m : load_mode) (w : Z -> Z) (bsrev : list binding) (p : Z) (ff : N) (a : Heap.st) : Heap.st :=
  match bsrev with
  | [] => a
  | b :: rest => lv_abs m w rest p (ff - 1) (if share_on m b then Heap.share (w (p + field_offset Fst (ff - 1))) 1 a else a)
  end.
(* the pointer slots that get shared are null or blocks *)
Fixpoint lv_kids (m : load_mode) (w : Z -> Z) (bsrev : list binding) (p : Z) (ff : N) : Prop :=
  match bsrev with
  | [] => True
  | b :: rest => (share_on m b = true -> w (p + field_offset Fst (ff - 1)) = 0 \/ is_blk (w (p + field_offset Fst (ff - 1)))) /\
                 lv_kids m w rest p (ff - 1)
  end.

Lemma lv_abs_congr m bsrev : forall w w' p ff a a',
  st_eqB a a' -> (forall j, (j < ff)%N -> w (p + field_offset Fst j) = w' (p + field_offset Fst j)) ->
  (N.of_nat (List.length bsrev) <= ff)%N -> lv_kids m w bsrev p ff ->
  st_eqB (lv_abs m w bsrev p ff a) (lv_abs m w' bsrev p ff a').
Proof.
  induction bsrev as [|b rest IH]; intros w w' p ff a a' E Hw Hlen K; cbn [lv_abs lv_kids List.length] in *; auto.
  destruct K as [K1 K2]. apply IH; auto.
  - rewrite <- (Hw (ff - 1)%N) by lia. destruct (share_on m b); auto. apply share_st_eqB; auto.
  - intros j Hj. apply Hw. lia.
  - lia.
Qed.
Lemma lv_kids_congr m bsrev : forall w w' p ff,
  (forall j, (j < ff)%N -> w (p + field_offset Fst j) = w' (p + field_offset Fst j)) ->
  (N.of_nat (List.length bsrev) <= ff)%N -> lv_kids m w bsrev p ff -> lv_kids m w' bsrev p ff.
Proof.
  induction bsrev as [|b rest IH]; intros w w' p ff Hw Hlen K; cbn [lv_kids List.length] in *; auto.
  destruct K as [K1 K2]. split.
  - rewrite <- (Hw (ff - 1)%N) by lia. exact K1.
  - apply (IH w); auto; [intros j Hj; apply Hw|]; lia.
Qed.
Lemma lv_kids_all m w bsrev : forall p ff,
  (forall j, (j < ff)%N -> w (p + field_offset Fst j) = 0 \/ is_blk (w (p + field_offset Fst j))) ->
  (N.of_nat (List.length bsrev) <= ff)%N -> lv_kids m w bsrev p ff.
Proof.
  induction bsrev as [|b rest IH]; intros p ff H Hlen; cbn [lv_kids List.length] in *; auto.
  split; [intros _; apply H; lia|]. apply IH; [intros j Hj; apply H|]; lia.
Qed.
Lemma lv_abs_release w bsrev : forall p ff a, lv_abs Release w bsrev p ff a = a.
Proof. induction bsrev as [|b rest IH]; intros; cbn [lv_abs share_on]; auto. Qed.

Lemma abs_heap_same F s s' :
  (forall a, hword s' a = hword s a) -> rget s' HEAP = rget s HEAP -> rget s' FREE = rget s FREE ->
  st_eqB (abs_heap F s') (abs_heap F s).
Proof.
  intros W H1 H2. unfold abs_heap, reg_or0. rewrite H1, H2. split; [reflexivity|]. split; [reflexivity|]. split; [reflexivity|].
  intros x _. cbn [Heap.m]. unfold abs_mem. now rewrite !W.
Qed.

(* sharing the three pointer slots: the order does not matter *)
Lemma share_comm x y a : st_eqB (Heap.share x 1 (Heap.share y 1 a)) (Heap.share y 1 (Heap.share x 1 a)).
Proof.
  unfold Heap.share. destruct (Z.eqb_spec x 0), (Z.eqb_spec y 0); try apply st_eqB_refl.
  split; [reflexivity|]. split; [reflexivity|]. split; [reflexivity|]. intros z _.
  cbn [Heap.m]. unfold Heap.set_hdr, Heap.upd.
  destruct (Z.eqb_spec z x), (Z.eqb_spec z y), (Z.eqb_spec x y), (Z.eqb_spec y x); subst; cbn [Heap.hdr Heap.ps]; try congruence;
    f_equal; lia.
Qed.
Lemma share_if b c x : (bchi b = Ext -> c = 0) -> (if share_on Share b then Heap.share c 1 x else x) = Heap.share c 1 x.
Proof. unfold share_on. destruct (bchi b); auto. intros H. now rewrite H. Qed.

Lemma lv_abs_share_list w bs p a :
  (List.length bs <= 3)%nat ->
  (forall j, (j < 3 - N.of_nat (List.length bs))%N -> w (p + field_offset Fst j) = 0) ->
  (forall i b, nth_error bs i = Some b -> bchi b = Ext -> w (p + field_offset Fst (3 - N.of_nat (List.length bs) + N.of_nat i)) = 0) ->
  (forall j, (j < 3)%N -> w (p + field_offset Fst j) = 0 \/ is_blk (w (p + field_offset Fst j))) ->
  st_eqB (lv_abs Share w (rev bs) p 3 a) (Heap.share_list [w (p + 16); w (p + 32); w (p + 48)] a).
Proof.
  intros Hlen Hz He Hk.
  assert (E : lv_abs Share w (rev bs) p 3 a = Heap.share (w (p + 16)) 1 (Heap.share (w (p + 32)) 1 (Heap.share (w (p + 48)) 1 a))).
  { destruct bs as [|b0 [|b1 [|b2 [|]]]]; cbn [List.length] in *; try lia; cbn [rev app lv_abs];
      change (3 - 1)%N with 2%N; change (2 - 1)%N with 1%N; change (1 - 1)%N with 0%N; rewrite ?fo_F0, ?fo_F1, ?fo_F2.
    - pose proof (Hz 0%N ltac:(cbn; lia)) as Z0. pose proof (Hz 1%N ltac:(cbn; lia)) as Z1. pose proof (Hz 2%N ltac:(cbn; lia)) as Z2.
      rewrite fo_F0 in Z0. rewrite fo_F1 in Z1. rewrite fo_F2 in Z2. rewrite Z0, Z1, Z2. reflexivity.
    - pose proof (Hz 0%N ltac:(cbn; lia)) as Z0. pose proof (Hz 1%N ltac:(cbn; lia)) as Z1.
      rewrite fo_F0 in Z0. rewrite fo_F1 in Z1. rewrite Z0, Z1.
      rewrite share_if; [reflexivity|]. intros Hx. exact (He 0%nat b0 eq_refl Hx).
    - pose proof (Hz 0%N ltac:(cbn; lia)) as Z0. rewrite fo_F0 in Z0. rewrite Z0.
      rewrite (share_if b1); [|intros Hx; exact (He 1%nat b1 eq_refl Hx)].
      rewrite (share_if b0); [reflexivity|]. intros Hx. exact (He 0%nat b0 eq_refl Hx).
    - rewrite (share_if b2); [|intros Hx; exact (He 2%nat b2 eq_refl Hx)].
      rewrite (share_if b1); [|intros Hx; exact (He 1%nat b1 eq_refl Hx)].
      rewrite (share_if b0); [reflexivity|]. intros Hx. exact (He 0%nat b0 eq_refl Hx). }
  rewrite E. unfold Heap.share_list. cbn [fold_left].
  pose proof (Hk 0%N ltac:(lia)) as K0. pose proof (Hk 1%N ltac:(lia)) as K1. pose proof (Hk 2%N ltac:(lia)) as K2.
  rewrite fo_F0 in K0. rewrite fo_F1 in K1. rewrite fo_F2 in K2.
  eapply st_eqB_trans; [apply share_st_eqB; [apply share_comm|exact K0]|].
  eapply st_eqB_trans; [apply share_comm|].
  apply share_st_eqB; [apply share_comm|exact K2].
Qed.

Lemma fo_snd_fst j : field_offset Snd j = field_offset Fst j + 8.
Proof. rewrite !field_offset_val. cbn [tnum_n]. lia. Qed.

Section Load.
Variable im : image.

Definition load_field_code (t : xtemp) (blk : reg) (off : Z) : list xcode :=
  match t with XR r => [MOVL r blk off] | XS p => [MOVL TEMP blk off; MOVS TEMP STACK (stack_offset p)] end.
(* the register that holds the loaded word afterwards *)
Definition held_in (t : xtemp) : reg := match t with XR r => r | XS _ => TEMP end.

Lemma load_field_shape n c blk j cs :
  load_field n c blk j = Ok cs ->
  (2 * N.of_nat (List.length c) + tnum_n n < MAXPOS)%N /\
  cs = load_field_code (tpos (2 * N.of_nat (List.length c) + tnum_n n)) blk (field_offset n j).
Proof.
  unfold load_field. destruct (x_fresh n c) as [t|] eqn:Et; [|discriminate]. cbn [rbind].
  apply x_fresh_tpos in Et as [-> Hk]. intros H. inversion H. split; [exact Hk|]. reflexivity.
Qed.

Lemma x86_load_field_code_ok pos t blk off s sp p :
  code_at im pos (load_field_code t blk off) ->
  frame_ok s sp -> loc_ok t ->
  rget s blk = Some p -> heap_addr (p + off) ->
  exists s', steps im pos s (pnth pos (List.length (load_field_code t blk off))) s' /\
    lget s' sp t = Some (hword s (p + off)) /\ rget s' (held_in t) = Some (hword s (p + off)) /\
    (forall l, loc_ok l -> l <> t -> l <> XR TEMP -> lget s' sp l = lget s sp l) /\
    (forall a, hword s' a = hword s a) /\ out s' = out s /\ frame_ok s' sp /\ stack_frame s s' sp.
Proof.
  intros HC FR T R Ha. assert (SP : sp_ok sp) by apply FR.
  destruct t as [r|q]; cbn [load_field_code List.length lget loc_ok held_in] in *.
  - exists (rset s r (Some (hword s (p + off)))). split; [|split; [|split; [|split; [|split; [|split; [|split]]]]]].
    + nxt HC 0%nat. { eapply step_MOVL_heap; eassumption. } apply steps_refl.
    + apply rget_rset_same.
    + apply rget_rset_same.
    + intros l L N1 N2. destruct l as [r'|q']; cbn [lget]; [apply rget_rset_other; congruence|apply sget_rset].
    + reflexivity.
    + reflexivity.
    + now apply frame_ok_rset.
    + apply stack_frame_rset.
  - set (s1 := rset s TEMP (Some (hword s (p + off)))).
    assert (F1 : frame_ok s1 sp) by (apply frame_ok_rset; [discriminate|exact FR]).
    exists (sset s1 sp q (Some (hword s (p + off)))). split; [|split; [|split; [|split; [|split; [|split; [|split]]]]]].
    + nxt HC 0%nat. { eapply step_MOVL_heap; eassumption. }
      nxt HC 1%nat. { rewrite (step_MOVS_slot im s1 sp F1) by exact T. unfold s1 at 2. rewrite rget_rset_same. reflexivity. }
      apply steps_refl.
    + apply sget_sset_same.
    + rewrite rget_sset. apply rget_rset_same.
    + intros l L N1 N2. destruct l as [r'|q']; cbn [lget loc_ok] in *.
      * rewrite rget_sset. apply rget_rset_other; congruence.
      * rewrite sget_sset_other by (auto; congruence). apply sget_rset.
    + reflexivity.
    + reflexivity.
    + now apply frame_ok_sset.
    + apply (stack_frame_trans s s1); [apply stack_frame_rset|apply stack_frame_sset; exact T].
Qed.

Lemma load_value_shape b c blk j m lc cs lc' :
  load_value b c blk j m lc = Ok (cs, lc') ->
  let kF := (2 * N.of_nat (List.length c))%N in
  let cS := load_field_code (tpos (kF + 1)) blk (field_offset Snd j) in
  let cF := load_field_code (tpos kF) blk (field_offset Fst j) in
  let sh := x_share_block_n (XR (held_in (tpos kF))) 1 lc in
  (kF + 1 < MAXPOS)%N /\
  ((bchi b = Ext /\ cs = cS /\ lc' = lc) \/
   (bchi b <> Ext /\ m = Release /\ cs = cS ++ cF /\ lc' = lc) \/
   (bchi b <> Ext /\ m = Share /\ cs = cS ++ cF ++ fst sh /\ lc' = snd sh)).
Proof.
  intros H kF cS cF sh. unfold load_value in H.
  destruct (load_field Snd c blk j) as [c1|] eqn:E1; [|discriminate]. cbn [rbind] in H.
  apply load_field_shape in E1 as [K1 ->]. cbn [tnum_n] in *. fold kF in K1 |- *. split; [exact K1|].
  destruct (bchi b) eqn:Echi.
  3:{ inversion H. left. auto. }
  all: right;
    destruct (load_field Fst c blk j) as [c2|] eqn:E2; [|discriminate]; cbn [rbind] in H;
    apply load_field_shape in E2 as [K2 ->]; cbn [tnum_n] in *; rewrite N.add_0_r in *;
    destruct (x_fresh Fst c) as [t|] eqn:Et; [|discriminate]; cbn [rbind] in H;
    apply x_fresh_tpos in Et as [-> _]; cbn [tnum_n] in *; rewrite N.add_0_r in *; fold kF in H |- *;
    destruct m;
    [ left; inversion H; repeat split; auto; discriminate
    | right; change (match tpos kF with XR r => r | XS _ => TEMP end) with (held_in (tpos kF)) in H; fold sh in H;
      destruct sh as [c3 lc1]; inversion H; repeat split; auto; discriminate ].
Qed.

Lemma share_on_ext m b : bchi b = Ext -> share_on m b = false.
Proof. intros H. unfold share_on. rewrite H. now destruct m. Qed.
Lemma share_on_release b : share_on Release b = false.
Proof. reflexivity. Qed.
Lemma share_on_share b : bchi b <> Ext -> share_on Share b = true.
Proof. unfold share_on. destruct (bchi b); congruence. Qed.
Lemma share_on_true m b : share_on m b = true -> m = Share.
Proof. destruct m; [discriminate|reflexivity]. Qed.

Lemma x86_load_value_ok pos b c blk j m lc cs lc' s sp p F :
  load_value b c blk j m lc = Ok (cs, lc') ->
  code_at im pos cs -> labels_at im pos cs -> (j < 3)%N ->
  frame_ok s sp -> rget s blk = Some p -> is_blk p -> blk <> TEMP ->
  let kF := (2 * N.of_nat (List.length c))%N in
  XR blk <> tpos (kF + 1) ->
  let wS := hword s (p + field_offset Snd j) in
  let wF := hword s (p + field_offset Fst j) in
  (share_on m b = true -> wF = 0 \/ is_blk wF) ->
  (share_on m b = true -> wF <> 0 -> wrap (hword s wF + 1) = hword s wF + 1) ->
  exists s', steps im pos s (pnth pos (List.length cs)) s' /\
    st_eqB (abs_heap F s') (if share_on m b then Heap.share wF 1 (abs_heap F s) else abs_heap F s) /\
    lget s' sp (tpos (kF + 1)) = Some wS /\
    (bchi b <> Ext -> lget s' sp (tpos kF) = Some wF) /\
    (forall l, loc_ok l -> l <> tpos kF -> l <> tpos (kF + 1) -> l <> XR TEMP -> lget s' sp l = lget s sp l) /\
    (forall a, hword s' a = if share_on m b && negb (wF =? 0) && (a =? wF) then hword s wF + 1 else hword s a) /\
    out s' = out s /\ frame_ok s' sp /\ stack_frame s s' sp.
Proof.
  intros Hlv HC HL Hj FR R Hb NB kF NS wS wF Hkid Hwrap.
  destruct (load_value_shape _ _ _ _ _ _ _ _ Hlv) as (K1 & Hshape). fold kF in K1, Hshape.
  assert (HaS : heap_addr (p + field_offset Snd j)) by (now apply field_addr).
  assert (HaF : heap_addr (p + field_offset Fst j)) by (now apply field_addr).
  assert (K0 : (kF < MAXPOS)%N) by lia.
  (* the integer slot *)
  assert (Snd_step : forall cs', code_at im pos (load_field_code (tpos (kF + 1)) blk (field_offset Snd j) ++ cs') ->
     exists s1, steps im pos s (pnth pos (List.length (load_field_code (tpos (kF + 1)) blk (field_offset Snd j)))) s1 /\
       lget s1 sp (tpos (kF + 1)) = Some wS /\ rget s1 blk = Some p /\
       (forall l, loc_ok l -> l <> tpos (kF + 1) -> l <> XR TEMP -> lget s1 sp l = lget s sp l) /\
       (forall a, hword s1 a = hword s a) /\ out s1 = out s /\ frame_ok s1 sp /\ stack_frame s s1 sp).
  { intros cs' HC'. apply code_at_app2 in HC' as [HC1 _].
    destruct (x86_load_field_code_ok pos _ blk _ s sp p HC1 FR (tpos_loc_ok _ K1) R HaS) as (s1 & ST1 & V1 & _ & Oth1 & W1 & O1 & FR1 & SF1).
    exists s1. split; [exact ST1|]. split; [exact V1|]. split; [|auto 10].
    change (rget s1 blk) with (lget s1 sp (XR blk)). rewrite Oth1; [exact R| | |congruence].
    - cbn [loc_ok]. intros ->. destruct FR as (A & _). rewrite A in R. inversion R; subst. pose proof (is_blk_pos _ Hb).
      destruct FR1 as (_ & (_ & B & _)). unfold STACK_LIMIT, STACK_TOP in B. destruct Hb as (k & Hk & E & Hhi). unfold HEAP_BASE, HEAP_SIZE in *. lia.
    - exact NS. }
  destruct Hshape as [(Hext & -> & ->)|[(Hnext & -> & -> & ->)|(Hnext & -> & -> & ->)]].
  - (* integer variable *)
    rewrite (share_on_ext m b Hext). cbn [andb].
    destruct (Snd_step [] ltac:(rewrite app_nil_r; exact HC)) as (s1 & ST1 & V1 & R1 & Oth1 & W1 & O1 & FR1 & SF1).
    exists s1. split; [exact ST1|]. split; [|split; [exact V1|split; [intros; contradiction|split; [|split; [exact W1|auto]]]]].
    + apply abs_heap_same; auto.
      * change (lget s1 sp (XR HEAP) = lget s sp (XR HEAP)). apply Oth1; [cbn; discriminate|apply not_eq_sym, tpos_not_reserved|discriminate].
      * change (lget s1 sp (XR FREE) = lget s sp (XR FREE)). apply Oth1; [cbn; discriminate|apply not_eq_sym, tpos_not_reserved|discriminate].
    + intros l L N1 N2 N3. now apply Oth1.
  - (* pointer, the block is released: no sharing *)
    rewrite share_on_release. cbn [andb].
    destruct (Snd_step _ HC) as (s1 & ST1 & V1 & R1 & Oth1 & W1 & O1 & FR1 & SF1).
    apply code_at_app2 in HC as [_ HC2].
    assert (HaF1 : heap_addr (p + field_offset Fst j)) by exact HaF.
    destruct (x86_load_field_code_ok _ _ blk _ s1 sp p HC2 FR1 (tpos_loc_ok _ K0) R1 HaF1) as (s2 & ST2 & V2 & _ & Oth2 & W2 & O2 & FR2 & SF2).
    rewrite W1 in V2. fold wF in V2.
    assert (Oth : forall l, loc_ok l -> l <> tpos kF -> l <> tpos (kF + 1) -> l <> XR TEMP -> lget s2 sp l = lget s sp l).
    { intros l L N1 N2 N3. rewrite Oth2, Oth1; auto. }
    exists s2. split; [eapply steps_app_len; eassumption|].
    split; [|split; [|split; [intros _; exact V2|split; [exact Oth|split; [intros a; now rewrite W2, W1|split; [congruence|split; [exact FR2|exact (stack_frame_trans _ _ _ _ SF1 SF2)]]]]]]].
    + apply abs_heap_same; [intros a; now rewrite W2, W1| |].
      * change (lget s2 sp (XR HEAP) = lget s sp (XR HEAP)). apply Oth; [cbn; discriminate|apply not_eq_sym, tpos_not_reserved|apply not_eq_sym, tpos_not_reserved|discriminate].
      * change (lget s2 sp (XR FREE) = lget s sp (XR FREE)). apply Oth; [cbn; discriminate|apply not_eq_sym, tpos_not_reserved|apply not_eq_sym, tpos_not_reserved|discriminate].
    + rewrite Oth2; [exact V1|now apply tpos_loc_ok| |apply tpos_not_temp]. apply tpos_neq. lia.
  - (* pointer, shared *)
    rewrite (share_on_share b Hnext) in *. cbn [andb].
    destruct (Snd_step _ HC) as (s1 & ST1 & V1 & R1 & Oth1 & W1 & O1 & FR1 & SF1).
    apply code_at_app2 in HC as [_ HC2]. apply code_at_app2 in HC2 as [HC2 HC3].
    apply labels_at_app2 in HL as [_ HL2]. apply labels_at_app2 in HL2 as [_ HL3].
    destruct (x86_load_field_code_ok _ _ blk _ s1 sp p HC2 FR1 (tpos_loc_ok _ K0) R1 HaF) as (s2 & ST2 & V2 & H2 & Oth2 & W2 & O2 & FR2 & SF2).
    rewrite W1 in V2, H2. fold wF in V2, H2.
    assert (Oth : forall l, loc_ok l -> l <> tpos kF -> l <> tpos (kF + 1) -> l <> XR TEMP -> lget s2 sp l = lget s sp l).
    { intros l L N1 N2 N3. rewrite Oth2, Oth1; auto. }
    assert (W12 : forall a, hword s2 a = hword s a) by (intros a; now rewrite W2, W1).
    destruct (x86_share_reg_frame im _ (held_in (tpos kF)) 1 lc s2 wF F HC3 HL3 H2 (Hkid eq_refl) eq_refl) as (s3 & ST3 & EQ3 & Rs3 & Stk3 & O3 & W3).
    { intros Hn. rewrite W12. change (Z.of_N 1) with 1. now apply Hwrap. }
    assert (L3 : forall l, lget s3 sp l = lget s2 sp l).
    { intros [r|q]; cbn [lget]; [apply Rs3|unfold sget; now rewrite Stk3]. }
    exists s3. split; [|split; [|split; [|split; [|split; [|split; [|split; [|split]]]]]]].
    + rewrite app_assoc. eapply steps_app_len; [eapply steps_app_len; eassumption|].
      rewrite app_length, <- pnth_add. exact ST3.
    + eapply st_eqB_trans; [exact EQ3|]. change (Z.of_N 1) with 1. apply share_st_eqB; [|exact (Hkid eq_refl)].
      apply abs_heap_same; [exact W12| |].
      * change (lget s2 sp (XR HEAP) = lget s sp (XR HEAP)). apply Oth; [cbn; discriminate|apply not_eq_sym, tpos_not_reserved|apply not_eq_sym, tpos_not_reserved|discriminate].
      * change (lget s2 sp (XR FREE) = lget s sp (XR FREE)). apply Oth; [cbn; discriminate|apply not_eq_sym, tpos_not_reserved|apply not_eq_sym, tpos_not_reserved|discriminate].
    + rewrite L3, Oth2; [exact V1|now apply tpos_loc_ok| |apply tpos_not_temp]. apply tpos_neq. lia.
    + intros _. rewrite L3. exact V2.
    + intros l L N1 N2 N3. rewrite L3. now apply Oth.
    + intros a. rewrite W3, !W12. change (Z.of_N 1) with 1. reflexivity.
    + congruence.
    + destruct FR2 as (A & B). split; [rewrite Rs3; exact A|exact B].
    + apply (stack_frame_trans s s2); [exact (stack_frame_trans _ _ _ _ SF1 SF2)|apply stack_frame_eq; exact Stk3].
Qed.

Lemma x86_load_values_rev_ok : forall bsrev existing blk ff m lc cs lc' pos s sp p F,
  load_values bsrev existing blk ff m lc = Ok (cs, lc') ->
  (N.of_nat (List.length bsrev) <= ff)%N -> (ff <= 3)%N ->
  code_at im pos cs -> labels_at im pos cs ->
  frame_ok s sp -> (bsrev <> [] -> rget s blk = Some p) -> is_blk p -> blk <> TEMP ->
  (forall k, (2 * N.of_nat (List.length existing) < k)%N -> XR blk <> tpos k) ->
  lv_kids m (hword s) bsrev p ff ->
  (m = Share -> forall x, is_blk x -> min_int <= hword s x /\ hword s x + Z.of_nat (List.length bsrev) <= max_int) ->
  exists s', steps im pos s (pnth pos (List.length cs)) s' /\
    st_eqB (abs_heap F s') (lv_abs m (hword s) bsrev p ff (abs_heap F s)) /\
    (forall i b, nth_error (rev bsrev) i = Some b ->
       lget s' sp (tpos (2 * N.of_nat (List.length existing + i) + 1)) =
         Some (hword s (p + field_offset Snd (ff - N.of_nat (List.length bsrev) + N.of_nat i))) /\
       (bchi b <> Ext -> lget s' sp (tpos (2 * N.of_nat (List.length existing + i))) =
         Some (hword s (p + field_offset Fst (ff - N.of_nat (List.length bsrev) + N.of_nat i))))) /\
    (forall l, loc_ok l -> l <> XR TEMP ->
       (forall k, (2 * N.of_nat (List.length existing) <= k < 2 * N.of_nat (List.length existing + List.length bsrev))%N -> l <> tpos k) ->
       lget s' sp l = lget s sp l) /\
    nonblk_same s s' /\
    (forall x, is_blk x -> hword s x <= hword s' x <= hword s x + Z.of_nat (List.length bsrev)) /\
    out s' = out s /\ frame_ok s' sp /\ stack_frame s s' sp.
Proof.
  induction bsrev as [|b rest IH]; intros existing blk ff m lc cs lc' pos s sp p F Hlv Hlen Hff HC HL FR R Hb NB NK Kids Room.
  - cbn [load_values] in Hlv. inversion Hlv; subst cs lc'. exists s. cbn [List.length lv_abs pnth rev].
    split; [apply steps_refl|]. split; [apply st_eqB_refl|]. split; [intros i b Hi; destruct i; discriminate|].
    split; [auto|]. split; [apply nonblk_same_refl|]. split; [intros; lia|]. split; [reflexivity|]. split; [exact FR|apply stack_frame_refl].
  - cbn [load_values] in Hlv. cbn [List.length] in Hlen.
    destruct (load_value b (existing ++ rev rest) blk (ff - 1) m lc) as [[c1 lc1]|] eqn:E1; [|discriminate]. cbn [rbind] in Hlv.
    destruct (load_values rest existing blk (ff - 1) m lc1) as [[c2 lc2]|] eqn:E2; [|discriminate]. cbn [rbind] in Hlv.
    inversion Hlv; subst cs lc'. clear Hlv.
    set (E := List.length existing) in *. set (n := List.length rest) in *.
    assert (HL' : List.length (existing ++ rev rest) = (E + n)%nat) by (rewrite app_length, rev_length; reflexivity).
    apply code_at_app2 in HC as [HC1 HC2]. apply labels_at_app2 in HL as [HL1 HL2].
    cbn [lv_kids] in Kids. destruct Kids as [Kid1 Kids2].
    specialize (R ltac:(discriminate)).
    set (wF := hword s (p + field_offset Fst (ff - 1))) in *.
    destruct (x86_load_value_ok pos b (existing ++ rev rest) blk (ff - 1) m lc c1 lc1 s sp p F E1 HC1 HL1 ltac:(lia) FR R Hb NB)
      as (s1 & ST1 & EQ1 & VS & VF & Oth1 & W1 & O1 & FR1 & SF1).
    { rewrite HL'. apply NK. lia. }
    { exact Kid1. }
    { intros Hsh Hn0. fold wF in Hn0 |- *. apply wrap_id. destruct (Kid1 Hsh) as [|Kb]; [contradiction|].
      destruct (Room (share_on_true _ _ Hsh) wF Kb). cbn [List.length] in *. lia. }
    rewrite HL' in VS, VF, Oth1. fold wF in EQ1, VF, W1.
    assert (NB1 : nonblk_same s s1).
    { intros a Ha. rewrite W1. destruct (share_on m b); cbn [andb]; [|reflexivity].
      destruct (Z.eqb_spec wF 0); cbn [negb andb]; [reflexivity|]. destruct (Z.eqb_spec a wF) as [->|]; [|reflexivity].
      destruct (Kid1 eq_refl); contradiction. }
    assert (Hd1 : forall x, is_blk x -> hword s x <= hword s1 x <= hword s x + 1).
    { intros x Hx. rewrite W1. destruct (share_on m b && negb (wF =? 0) && (x =? wF)) eqn:Eb; [|lia].
      apply andb_true_iff in Eb as [_ Eb]. apply Z.eqb_eq in Eb. subst x. lia. }
    assert (Hfld : forall t j, (j < 3)%N -> hword s1 (p + field_offset t j) = hword s (p + field_offset t j)).
    { intros t j Hj. apply NB1. now apply field_not_blk. }
    assert (R1 : rest <> [] -> rget s1 blk = Some p).
    { intros Hne. change (lget s1 sp (XR blk) = Some p). rewrite Oth1; [exact R| | | |congruence].
      - cbn [loc_ok]. intros ->. destruct FR as (A & (_ & B & _)). rewrite A in R. inversion R; subst.
        unfold STACK_LIMIT, STACK_TOP in B. destruct Hb as (k & Hk & Eq & Hhi). unfold HEAP_BASE, HEAP_SIZE in *. lia.
      - apply NK. destruct rest; [contradiction|]. unfold n. cbn [List.length]. lia.
      - apply NK. lia. }
    destruct (IH existing blk (ff - 1)%N m lc1 c2 lc2 _ s1 sp p F E2 ltac:(lia) ltac:(lia) HC2 HL2 FR1 R1 Hb NB NK)
      as (s2 & ST2 & EQ2 & V2 & Oth2 & NB2 & Hd2 & O2 & FR2 & SF2).
    { eapply lv_kids_congr; [|lia|exact Kids2]. intros j Hj. symmetry. apply Hfld. lia. }
    { intros Hm x Hx. destruct (Room Hm x Hx), (Hd1 x Hx). cbn [List.length] in *. fold n. lia. }
    fold E n in V2, Oth2, Hd2.
    exists s2. split; [eapply steps_app_len; eassumption|]. split; [|split; [|split; [|split; [|split; [|split; [|split]]]]]].
    + cbn [lv_abs]. fold wF. eapply st_eqB_trans; [exact EQ2|]. apply lv_abs_congr; auto; [|lia|].
      * intros j Hj. apply Hfld. lia.
      * eapply lv_kids_congr; [|lia|exact Kids2]. intros j Hj. symmetry. apply Hfld. lia.
    + cbn [rev List.length]. fold n. intros i b' Hi. destruct (Nat.lt_ge_cases i n) as [Hlt|Hge].
      * rewrite nth_error_app1 in Hi by (rewrite rev_length; exact Hlt).
        destruct (V2 i b' Hi) as [A B]. rewrite !Hfld in A, B by lia.
        replace (ff - N.of_nat (S n) + N.of_nat i)%N with (ff - 1 - N.of_nat n + N.of_nat i)%N by lia. auto.
      * assert (i = n).
        { assert (i < List.length (rev rest ++ [b]))%nat by (apply nth_error_Some; congruence).
          rewrite app_length, rev_length in H. cbn [List.length] in H. fold n in H. lia. }
        subst i. rewrite nth_error_app2, rev_length, Nat.sub_diag in Hi by (rewrite rev_length; apply Nat.le_refl).
        inversion Hi; subst b'.
        replace (ff - N.of_nat (S n) + N.of_nat n)%N with (ff - 1)%N by lia.
        assert (K1 : (2 * N.of_nat (E + n) + 1 < MAXPOS)%N).
        { destruct (load_value_shape _ _ _ _ _ _ _ _ E1) as (K & _). rewrite HL' in K. exact K. }
        split; [|intros Hne].
        -- rewrite Oth2; [exact VS|apply tpos_loc_ok; lia|apply tpos_not_temp|]. intros k Hk. apply tpos_neq. lia.
        -- rewrite Oth2; [exact (VF Hne)|apply tpos_loc_ok; lia|apply tpos_not_temp|]. intros k Hk. apply tpos_neq. lia.
    + intros l L NT Hl. cbn [List.length] in Hl. fold n in Hl. rewrite Oth2, Oth1; auto.
      * apply Hl. lia.
      * apply Hl. lia.
      * intros k Hk. apply Hl. lia.
    + eapply nonblk_same_trans; eassumption.
    + intros x Hx. destruct (Hd1 x Hx), (Hd2 x Hx). cbn [List.length]. fold n. lia.
    + congruence.
    + exact FR2.
    + exact (stack_frame_trans _ _ _ _ SF1 SF2).
Qed.

Definition blk_reg_of (t : xtemp) : reg := match t with XR r => r | XS _ => TEMPORARY_TEMP end.
Definition rel_code (m : load_mode) (r : reg) : list xcode := match m with Release => release_block r | Share => [] end.

Lemma lv_kids_release w bsrev : forall p ff, lv_kids Release w bsrev p ff.
Proof. induction bsrev as [|b r IH]; intros; cbn [lv_kids]; auto. split; [discriminate|apply IH]. Qed.

Lemma TT_is_4 : TEMPORARY_TEMP = 4%N. Proof. reflexivity. Qed.

Definition link_load_code (bp : block_position) (klink : N) (R : reg) : list xcode :=
  match bp with Other => load_field_code (tpos klink) R (field_offset Fst 2) | Last => [] end.

Lemma reg_not_rsp_of_blk s sp r p : frame_ok s sp -> rget s r = Some p -> is_blk p -> r <> 0%N.
Proof.
  intros (A & (_ & B & _)) R Hb ->. rewrite A in R. inversion R; subst.
  unfold STACK_LIMIT, STACK_TOP in B. destruct Hb as (k & Hk & Eq & Hhi). unfold HEAP_BASE, HEAP_SIZE in *. lia.
Qed.

Lemma x86_load_block_ok pos bp next epr m lc lv lc' R klink s sp p h F :
  load_values (rev next) epr R (3 - bp_n bp) m lc = Ok (lv, lc') ->
  next <> [] -> (N.of_nat (List.length next) <= 3 - bp_n bp)%N ->
  klink = (2 * N.of_nat (List.length epr + List.length next))%N -> (bp = Other -> (klink < MAXPOS)%N) ->
  code_at im pos (rel_code m R ++ link_load_code bp klink R ++ lv) ->
  labels_at im pos (rel_code m R ++ link_load_code bp klink R ++ lv) -> frame_ok s sp ->
  rget s R = Some p -> is_blk p -> rget s HEAP = Some h -> R <> TEMP -> R <> HEAP ->
  (forall k, (2 * N.of_nat (List.length epr) < k)%N -> XR R <> tpos k) ->
  lv_kids m (hword s) (rev next) p (3 - bp_n bp) ->
  (m = Share -> forall x, is_blk x -> min_int <= hword s x /\ hword s x + Z.of_nat (List.length next) <= max_int) ->
  exists s', steps im pos s (pnth pos (List.length (rel_code m R ++ link_load_code bp klink R ++ lv))) s' /\
    st_eqB (abs_heap F s')
      (lv_abs m (hword s) (rev next) p (3 - bp_n bp) (match m with Release => Heap.release p (abs_heap F s) | Share => abs_heap F s end)) /\
    (bp = Other -> lget s' sp (tpos klink) = Some (hword s (p + 48))) /\
    (forall i b, nth_error next i = Some b ->
       lget s' sp (tpos (2 * N.of_nat (List.length epr + i) + 1)) =
         Some (hword s (p + field_offset Snd (3 - bp_n bp - N.of_nat (List.length next) + N.of_nat i))) /\
       (bchi b <> Ext -> lget s' sp (tpos (2 * N.of_nat (List.length epr + i))) =
         Some (hword s (p + field_offset Fst (3 - bp_n bp - N.of_nat (List.length next) + N.of_nat i))))) /\
    (forall l, loc_ok l -> l <> XR TEMP -> l <> XR HEAP ->
       (forall k, (2 * N.of_nat (List.length epr) <= k <= klink)%N -> l <> tpos k) ->
       lget s' sp l = lget s sp l) /\
    nonblk_same s s' /\
    (m = Share -> forall x, is_blk x -> hword s x <= hword s' x <= hword s x + Z.of_nat (List.length next)) /\
    (exists h', rget s' HEAP = Some h') /\
    out s' = out s /\ frame_ok s' sp /\ stack_frame s s' sp.
Proof.
  intros Hlv Hne Hlen Hkl Hklm HC HL FR R0 Hb Hh NT NH NK Kids Room.
  set (cap := (3 - bp_n bp)%N) in *. set (Eb := List.length epr) in *.
  assert (Hcap : (cap <= 3)%N) by (unfold cap; destruct bp; cbn; lia).
  assert (Hn1 : (1 <= List.length next)%nat) by (destruct next; [contradiction|cbn; lia]).
  fold Eb in Hkl.
  apply code_at_app2 in HC as [HC1 HC2]. apply labels_at_app2 in HL as [HL1 HL2].
  apply code_at_app2 in HC2 as [HC2 HC3]. apply labels_at_app2 in HL2 as [_ HL3].
  assert (S1 : exists s1, steps im pos s (pnth pos (List.length (rel_code m R))) s1 /\
     st_eqB (abs_heap F s1) (match m with Release => Heap.release p (abs_heap F s) | Share => abs_heap F s end) /\
     (forall r', r' <> HEAP -> rget s1 r' = rget s r') /\ (exists h', rget s1 HEAP = Some h') /\ stack s1 = stack s /\ out s1 = out s /\
     (forall a, hword s1 a = if (match m with Release => true | Share => false end) && (a =? p) then h else hword s a)).
  { destruct m; cbn [rel_code].
    - destruct (x86_release_block_frame im pos R s p h F HC1 R0 Hh Hb) as (s1 & ST1 & EQ1 & Oth1 & H1 & Stk1 & O1 & W1).
      exists s1. split; [exact ST1|]. split; [exact EQ1|]. split; [exact Oth1|]. split; [eauto|]. split; [exact Stk1|]. split; [exact O1|exact W1].
    - exists s. split; [apply steps_refl|]. split; [apply st_eqB_refl|]. split; [auto|]. split; [eauto|]. auto. }
  destruct S1 as (s1 & ST1 & EQ1 & Oth1 & (h1 & H1) & Stk1 & O1 & W1).
  assert (FR1 : frame_ok s1 sp) by (destruct FR as (A & B); split; [rewrite Oth1 by discriminate; exact A|exact B]).
  assert (R1 : rget s1 R = Some p) by (rewrite Oth1 by exact NH; exact R0).
  assert (L1 : forall l, l <> XR HEAP -> lget s1 sp l = lget s sp l).
  { intros [r|q] Hl; cbn [lget]; [apply Oth1; congruence|unfold sget; now rewrite Stk1]. }
  assert (Hoff : forall i, 0 < i < 64 -> hword s1 (p + i) = hword s (p + i)).
  { intros i Hi. rewrite W1. destruct (Z.eqb_spec (p + i) p); [lia|]. now rewrite andb_false_r. }
  assert (Hfld : forall t j, (j < 3)%N -> hword s1 (p + field_offset t j) = hword s (p + field_offset t j)).
  { intros t j Hj. apply Hoff. rewrite field_offset_val. destruct t; cbn [tnum_n]; lia. }
  assert (NB1 : nonblk_same s s1).
  { intros a Ha. rewrite W1. destruct (Z.eqb_spec a p) as [->|]; [contradiction|]. now rewrite andb_false_r. }
  assert (S2 : exists s2, steps im (pnth pos (List.length (rel_code m R))) s1
                            (pnth (pnth pos (List.length (rel_code m R))) (List.length (link_load_code bp klink R))) s2 /\
     (bp = Other -> lget s2 sp (tpos klink) = Some (hword s (p + 48))) /\
     (forall l, loc_ok l -> l <> tpos klink -> l <> XR TEMP -> lget s2 sp l = lget s1 sp l) /\
     (forall a, hword s2 a = hword s1 a) /\ out s2 = out s1 /\ frame_ok s2 sp /\ stack_frame s1 s2 sp).
  { destruct bp; cbn [link_load_code] in *.
    - exists s1. split; [apply steps_refl|]. split; [discriminate|]. split; [auto|]. split; [auto|]. split; [auto|]. split; [exact FR1|apply stack_frame_refl].
    - assert (Ha : heap_addr (p + field_offset Fst 2)) by (apply field_addr; auto; lia).
      destruct (x86_load_field_code_ok _ (tpos klink) R _ s1 sp p HC2 FR1 (tpos_loc_ok _ (Hklm eq_refl)) R1 Ha) as (s2 & ST2 & V2 & _ & Oth2 & W2 & O2 & FR2 & SF2).
      exists s2. split; [exact ST2|]. split; [|auto 10]. intros _. rewrite V2. rewrite fo_F2. now rewrite Hoff by lia. }
  destruct S2 as (s2 & ST2 & Vl & Oth2 & W2 & O2 & FR2 & SF2).
  assert (NKl : XR R <> tpos klink) by (apply NK; lia).
  assert (R2 : rget s2 R = Some p).
  { change (lget s2 sp (XR R) = Some p). rewrite Oth2; [exact R1| |exact NKl|congruence].
    cbn [loc_ok]. exact (reg_not_rsp_of_blk s sp R p FR R0 Hb). }
  assert (W12 : forall a, hword s2 a = hword s1 a) by exact W2.
  destruct (x86_load_values_rev_ok (rev next) epr R cap m lc lv lc' _ s2 sp p F Hlv ltac:(rewrite rev_length; exact Hlen) Hcap HC3 HL3 FR2)
    as (s3 & ST3 & EQ3 & V3 & Oth3 & NB3 & Hd3 & O3 & FR3 & SF3); auto.
  { eapply lv_kids_congr; [|rewrite rev_length; exact Hlen|exact Kids]. intros j Hj. rewrite W12. symmetry. apply Hfld. lia. }
  { intros Hm x Hx. subst m. rewrite W12, W1. cbn [andb]. rewrite rev_length. now apply Room. }
  rewrite rev_length, rev_involutive in *.
  exists s3. split; [|split; [|split; [|split; [|split; [|split; [|split; [|split; [|split; [|split]]]]]]]]].
  - rewrite !app_length, <- !pnth_add. eapply steps_trans; [exact ST1|]. eapply steps_trans; [exact ST2|]. exact ST3.
  - eapply st_eqB_trans; [exact EQ3|]. apply lv_abs_congr.
    + eapply st_eqB_trans; [|exact EQ1]. apply abs_heap_same; [exact W12| |].
      * change (lget s2 sp (XR HEAP) = lget s1 sp (XR HEAP)). apply Oth2; [cbn; discriminate|apply not_eq_sym, tpos_not_reserved|discriminate].
      * change (lget s2 sp (XR FREE) = lget s1 sp (XR FREE)). apply Oth2; [cbn; discriminate|apply not_eq_sym, tpos_not_reserved|discriminate].
    + intros j Hj. rewrite W12. apply Hfld. lia.
    + rewrite rev_length. exact Hlen.
    + eapply lv_kids_congr; [|rewrite rev_length; exact Hlen|exact Kids]. intros j Hj. rewrite W12. symmetry. apply Hfld. lia.
  - intros Ho. rewrite Oth3; [exact (Vl Ho)|apply tpos_loc_ok; auto|apply tpos_not_temp|]. intros k Hk. apply tpos_neq. lia.
  - intros i b Hi. destruct (V3 i b Hi) as [A B].
    assert (Hi' : (i < List.length next)%nat) by (apply nth_error_Some; congruence).
    rewrite !W12, !Hfld in A, B by lia. auto.
  - intros l L N1 N2 N3. rewrite Oth3; [|exact L|exact N1|intros k Hk; apply N3; lia].
    rewrite Oth2; [apply L1; exact N2|exact L|apply N3; lia|exact N1].
  - eapply nonblk_same_trans; [exact NB1|]. intros a Ha. rewrite NB3 by exact Ha. apply W12.
  - intros Hm x Hx. subst m. specialize (Hd3 x Hx). rewrite W12, W1 in Hd3. cbn [andb] in Hd3. exact Hd3.
  - assert (LH : lget s3 sp (XR HEAP) = lget s1 sp (XR HEAP)).
    { rewrite Oth3; [apply Oth2|cbn; discriminate|discriminate|]; [cbn; discriminate|apply not_eq_sym, tpos_not_reserved|discriminate|].
      intros k _. apply not_eq_sym, tpos_not_reserved. }
    cbn [lget] in LH. exists h1. now rewrite LH.
  - congruence.
  - exact FR3.
  - apply (stack_frame_trans s s2); [apply (stack_frame_trans s s1); [apply stack_frame_eq; exact Stk1|exact SF2]|exact SF3].
Qed.

(* the logical contents of TEMPORARY_TEMP: in the register, or evacuated to SPILL_TEMP *)
Definition saved (s : xstate) (sp : Z) (freed : bool) : option Z :=
  if freed then sget s sp SPILL_TEMP else rget s TEMPORARY_TEMP.
Definition lgetL (s : xstate) (sp : Z) (freed : bool) (l : xtemp) : option Z :=
  if xtemp_eqb l (XR TEMPORARY_TEMP) then saved s sp freed else lget s sp l.
Lemma lgetL_other s sp freed l : l <> XR TEMPORARY_TEMP -> lgetL s sp freed l = lget s sp l.
Proof. intros H. unfold lgetL. destruct (xtemp_eqb_spec l (XR TEMPORARY_TEMP)); [contradiction|reflexivity]. Qed.
Lemma lgetL_tt s sp freed : lgetL s sp freed (XR TEMPORARY_TEMP) = saved s sp freed.
Proof. unfold lgetL. destruct (xtemp_eqb_spec (XR TEMPORARY_TEMP) (XR TEMPORARY_TEMP)); [reflexivity|contradiction]. Qed.
Lemma lgetL_false s sp l : lgetL s sp false l = lget s sp l.
Proof. unfold lgetL, saved. destruct (xtemp_eqb_spec l (XR TEMPORARY_TEMP)) as [->|]; reflexivity. Qed.
Lemma tpos_tt k : tpos k = XR TEMPORARY_TEMP -> k = 0%N.
Proof. intros H. apply tpos_reg in H as [H _]. change TEMPORARY_TEMP with 4%N in H. lia. Qed.
Lemma tpos_not_tt k : (0 < k)%N -> tpos k <> XR TEMPORARY_TEMP.
Proof. intros Hk H. apply tpos_tt in H. lia. Qed.

Definition lf_blk_code (t : xtemp) (freed0 : bool) (bp : block_position) (m : load_mode) (klink : N) (lv : list xcode) : list xcode :=
  match t with
  | XR mr => rel_code m mr ++ link_load_code bp klink mr ++ lv
  | XS mp => ((if freed0 then [] else [MOVS TEMPORARY_TEMP STACK (stack_offset SPILL_TEMP)]) ++ [MOVL TEMPORARY_TEMP STACK (stack_offset mp)]) ++
             (rel_code m TEMPORARY_TEMP ++ link_load_code bp klink TEMPORARY_TEMP ++ lv) ++
             (match bp with Last => [MOVL TEMPORARY_TEMP STACK (stack_offset SPILL_TEMP)] | Other => [] end)
  end.
Definition freed_after (t : xtemp) (freed0 : bool) (bp : block_position) : bool :=
  match t with XR _ => freed0 | XS _ => match bp with Last => false | Other => true end end.
Definition untouched (l : xtemp) : Prop := loc_ok l /\ l <> XR TEMP /\ l <> XR HEAP /\ l <> XS SPILL_TEMP.

Lemma x86_lf_blk_ok pos bp next epr m lc lv lc' freed0 klink s sp p h F :
  let t := tpos (2 * N.of_nat (List.length epr)) in
  load_values (rev next) epr (blk_reg_of t) (3 - bp_n bp) m lc = Ok (lv, lc') ->
  next <> [] -> (N.of_nat (List.length next) <= 3 - bp_n bp)%N ->
  klink = (2 * N.of_nat (List.length epr + List.length next))%N ->
  (2 * N.of_nat (List.length epr) < MAXPOS)%N -> (bp = Other -> (klink < MAXPOS)%N) ->
  code_at im pos (lf_blk_code t freed0 bp m klink lv) -> labels_at im pos (lf_blk_code t freed0 bp m klink lv) -> frame_ok s sp ->
  (freed0 = true -> (12 <= 2 * N.of_nat (List.length epr))%N) ->
  lgetL s sp freed0 t = Some p -> is_blk p -> rget s HEAP = Some h ->
  lv_kids m (hword s) (rev next) p (3 - bp_n bp) ->
  (m = Share -> forall x, is_blk x -> min_int <= hword s x /\ hword s x + Z.of_nat (List.length next) <= max_int) ->
  let freed1 := freed_after t freed0 bp in
  exists s', steps im pos s (pnth pos (List.length (lf_blk_code t freed0 bp m klink lv))) s' /\
    st_eqB (abs_heap F s')
      (lv_abs m (hword s) (rev next) p (3 - bp_n bp) (match m with Release => Heap.release p (abs_heap F s) | Share => abs_heap F s end)) /\
    (bp = Other -> lgetL s' sp freed1 (tpos klink) = Some (hword s (p + 48))) /\
    (forall i b, nth_error next i = Some b ->
       lgetL s' sp freed1 (tpos (2 * N.of_nat (List.length epr + i) + 1)) =
         Some (hword s (p + field_offset Snd (3 - bp_n bp - N.of_nat (List.length next) + N.of_nat i))) /\
       (bchi b <> Ext -> lgetL s' sp freed1 (tpos (2 * N.of_nat (List.length epr + i))) =
         Some (hword s (p + field_offset Fst (3 - bp_n bp - N.of_nat (List.length next) + N.of_nat i))))) /\
    (forall l, untouched l -> (forall k, (2 * N.of_nat (List.length epr) <= k <= klink)%N -> l <> tpos k) ->
       lgetL s' sp freed1 l = lgetL s sp freed0 l) /\
    nonblk_same s s' /\
    (m = Share -> forall x, is_blk x -> hword s x <= hword s' x <= hword s x + Z.of_nat (List.length next)) /\
    (exists h', rget s' HEAP = Some h') /\
    out s' = out s /\ frame_ok s' sp /\ stack_frame s s' sp.
Proof.
  intros t Hlv Hne Hlen Hkl Kt Hklm HC HL FR Hfr P Hb Hh Kids Room freed1.
  set (Eb := List.length epr) in *.
  assert (Hn1 : (1 <= List.length next)%nat) by (destruct next; [contradiction|cbn; lia]).
  destruct (tpos_not_reserved (2 * N.of_nat Eb)) as (_ & NT & NH & _).
  unfold freed1. clear freed1. subst t. destruct (tpos (2 * N.of_nat Eb)) as [mr|mp] eqn:Et; cbn [blk_reg_of lf_blk_code freed_after] in *.
  - (* the pointer in a register *)
    assert (Hf0 : freed0 = false).
    { destruct freed0; [|reflexivity]. specialize (Hfr eq_refl). apply tpos_reg in Et as [_ Hlt]. lia. }
    subst freed0. rewrite lgetL_false in P. cbn [lget] in P.
    destruct (x86_load_block_ok pos bp next epr m lc lv lc' mr klink s sp p h F Hlv Hne Hlen Hkl Hklm HC HL FR P Hb Hh)
      as (s2 & ST & EQ & Vl & V & Oth & NB & Hd & HH & O & FR2 & SF2); auto; try congruence.
    { intros k Hk. rewrite <- Et. apply tpos_neq. fold Eb in Hk. lia. }
    exists s2. split; [exact ST|]. split; [exact EQ|].
    split; [intros Ho; rewrite lgetL_false; auto|]. split; [intros i b Hi; rewrite !lgetL_false; auto|].
    split; [|auto 10]. intros l (L1 & L2 & L3 & L4) Hr. rewrite !lgetL_false. now apply Oth.
  - (* the pointer in a spill slot *)
    destruct (tpos_slot _ _ Et) as (Emp & HE).
    rewrite lgetL_other in P by discriminate. cbn [lget] in P.
    assert (SP : sp_ok sp) by apply FR.
    assert (Qmp : slot_ok mp) by (pose proof (tpos_loc_ok _ Kt) as L; rewrite Et in L; exact L).
    assert (Q0 : slot_ok SPILL_TEMP) by (unfold slot_ok; reflexivity).
    assert (Nmp : SPILL_TEMP <> mp) by (change SPILL_TEMP with 0%N; lia).
    apply code_at_app2 in HC as [HC1 HC2]. apply labels_at_app2 in HL as [_ HL2].
    apply code_at_app2 in HC2 as [HC2 HC3]. apply labels_at_app2 in HL2 as [HL2 _].
    (* evacuate (once) and fetch the pointer *)
    assert (SA : exists sA, steps im pos s (pnth pos (List.length ((if freed0 then [] else [MOVS TEMPORARY_TEMP STACK (stack_offset SPILL_TEMP)]) ++ [MOVL TEMPORARY_TEMP STACK (stack_offset mp)]))) sA /\
       rget sA TEMPORARY_TEMP = Some p /\ sget sA sp SPILL_TEMP = saved s sp freed0 /\
       (forall l, l <> XR TEMPORARY_TEMP -> l <> XS SPILL_TEMP -> loc_ok l -> lget sA sp l = lget s sp l) /\
       (forall a, hword sA a = hword s a) /\ out sA = out s /\ frame_ok sA sp /\ stack_frame s sA sp).
    { destruct freed0; cbn [app List.length saved] in *.
      - exists (rset s TEMPORARY_TEMP (Some p)). split; [|split; [|split; [|split; [|split; [|split; [|split]]]]]]; try reflexivity.
        + nxt HC1 0%nat. { rewrite (step_MOVL_slot im s sp FR) by exact Qmp. rewrite P. reflexivity. } apply steps_refl.
        + apply rget_rset_same.
        + intros [r|q] N1 N2 L; cbn [lget]; [apply rget_rset_other; congruence|apply sget_rset].
        + apply frame_ok_rset; [discriminate|exact FR].
        + apply stack_frame_rset.
      - set (s1 := sset s sp SPILL_TEMP (rget s TEMPORARY_TEMP)).
        assert (F1 : frame_ok s1 sp) by (apply frame_ok_sset; exact FR).
        exists (rset s1 TEMPORARY_TEMP (Some p)). split; [|split; [|split; [|split; [|split; [|split; [|split]]]]]]; try reflexivity.
        + nxt HC1 0%nat. { apply (step_MOVS_slot im s sp FR). exact Q0. }
          nxt HC1 1%nat. { rewrite (step_MOVL_slot im s1 sp F1) by exact Qmp. unfold s1 at 2. rewrite sget_sset_other by auto. rewrite P. reflexivity. }
          apply steps_refl.
        + apply rget_rset_same.
        + rewrite sget_rset. unfold s1. apply sget_sset_same.
        + intros [r|q] N1 N2 L; cbn [lget loc_ok] in *.
          * rewrite rget_rset_other by congruence. apply rget_sset.
          * rewrite sget_rset. unfold s1. apply sget_sset_other; auto. congruence.
        + apply frame_ok_rset; [discriminate|exact F1].
        + apply (stack_frame_trans s s1); [apply stack_frame_sset; exact Q0|apply stack_frame_rset]. }
    destruct SA as (sA & STA & RA & SvA & OthA & WA & OA & FRA & SFA).
    destruct (x86_load_block_ok _ bp next epr m lc lv lc' TEMPORARY_TEMP klink sA sp p h F Hlv Hne Hlen Hkl Hklm HC2 HL2 FRA RA Hb)
      as (s2 & ST & EQ & Vl & V & Oth & NB & Hd & HH & O & FR2 & SF2); auto; try discriminate.
    { rewrite <- Hh. change (lget sA sp (XR HEAP) = lget s sp (XR HEAP)). apply OthA; [discriminate|discriminate|cbn; discriminate]. }
    { intros k Hk. apply not_eq_sym, tpos_not_tt. lia. }
    { eapply lv_kids_congr; [|rewrite rev_length; exact Hlen|exact Kids]. intros j Hj. now rewrite WA. }
    { intros Hm x Hx. rewrite WA. now apply Room. }
    assert (S20 : sget s2 sp SPILL_TEMP = saved s sp freed0).
    { change (lget s2 sp (XS SPILL_TEMP) = saved s sp freed0). rewrite Oth; [exact SvA|exact Q0|discriminate|discriminate|].
      intros k _. apply not_eq_sym, tpos_not_reserved. }
    assert (EQA : st_eqB (abs_heap F sA) (abs_heap F s)).
    { apply abs_heap_same; [exact WA| |].
      - change (lget sA sp (XR HEAP) = lget s sp (XR HEAP)). apply OthA; [discriminate|discriminate|cbn; discriminate].
      - change (lget sA sp (XR FREE) = lget s sp (XR FREE)). apply OthA; [discriminate|discriminate|cbn; discriminate]. }
    assert (EQ' : st_eqB (abs_heap F s2)
              (lv_abs m (hword s) (rev next) p (3 - bp_n bp) (match m with Release => Heap.release p (abs_heap F s) | Share => abs_heap F s end))).
    { eapply st_eqB_trans; [exact EQ|]. apply lv_abs_congr.
      - destruct m; [apply release_st_eqB; auto|exact EQA].
      - intros j Hj. apply WA.
      - rewrite rev_length. exact Hlen.
      - eapply lv_kids_congr; [|rewrite rev_length; exact Hlen|exact Kids]. intros j Hj. now rewrite WA. }
    assert (NBs : nonblk_same s s2) by (intros a Ha; rewrite NB by exact Ha; apply WA).
    assert (Hds : m = Share -> forall x, is_blk x -> hword s x <= hword s2 x <= hword s x + Z.of_nat (List.length next)).
    { intros Hm x Hx. specialize (Hd Hm x Hx). now rewrite WA in Hd. }
    assert (Hspill : forall k, (2 * N.of_nat Eb <= k)%N -> tpos k <> XR TEMPORARY_TEMP) by (intros k Hk; apply tpos_not_tt; lia).
    (* the end of the block: restore after the last one *)
    assert (SE : exists s3, steps im (pnth (pnth pos (List.length ((if freed0 then [] else [MOVS TEMPORARY_TEMP STACK (stack_offset SPILL_TEMP)]) ++ [MOVL TEMPORARY_TEMP STACK (stack_offset mp)])))
                                       (List.length (rel_code m TEMPORARY_TEMP ++ link_load_code bp klink TEMPORARY_TEMP ++ lv))) s2
                             (pnth (pnth (pnth pos (List.length ((if freed0 then [] else [MOVS TEMPORARY_TEMP STACK (stack_offset SPILL_TEMP)]) ++ [MOVL TEMPORARY_TEMP STACK (stack_offset mp)])))
                                       (List.length (rel_code m TEMPORARY_TEMP ++ link_load_code bp klink TEMPORARY_TEMP ++ lv)))
                                   (List.length (match bp with Last => [MOVL TEMPORARY_TEMP STACK (stack_offset SPILL_TEMP)] | Other => [] end))) s3 /\
       saved s3 sp (match bp with Last => false | Other => true end) = saved s sp freed0 /\
       (forall l, l <> XR TEMPORARY_TEMP -> lget s3 sp l = lget s2 sp l) /\
       (forall a, hword s3 a = hword s2 a) /\ rget s3 HEAP = rget s2 HEAP /\ rget s3 FREE = rget s2 FREE /\ out s3 = out s2 /\ frame_ok s3 sp /\
       stack_frame s2 s3 sp).
    { destruct bp; cbn [List.length pnth saved].
      - exists (rset s2 TEMPORARY_TEMP (sget s2 sp SPILL_TEMP)). split; [|split; [|split; [|split; [|split; [|split; [|split; [|split]]]]]]].
        + eapply steps_next; [apply (HC3 0%nat); reflexivity| |apply steps_refl]. apply (step_MOVL_slot im s2 sp FR2). exact Q0.
        + rewrite rget_rset_same. exact S20.
        + intros [r|q] N1; cbn [lget]; [apply rget_rset_other; congruence|apply sget_rset].
        + reflexivity.
        + apply rget_rset_other. discriminate.
        + apply rget_rset_other. discriminate.
        + reflexivity.
        + apply frame_ok_rset; [discriminate|exact FR2].
        + apply stack_frame_rset.
      - exists s2. split; [apply steps_refl|]. split; [exact S20|]. split; [intros; reflexivity|]. split; [intros; reflexivity|].
        split; [reflexivity|]. split; [reflexivity|]. split; [reflexivity|]. split; [exact FR2|apply stack_frame_refl]. }
    destruct SE as (s3 & ST3 & Sv3 & Oth3 & W3 & H3 & F3 & O3 & FR3 & SF3).
    exists s3. split; [|split; [|split; [|split; [|split; [|split; [|split; [|split; [|split; [|split]]]]]]]]].
    + eapply steps_app_len; [exact STA|]. eapply steps_app_len; [exact ST|exact ST3].
    + eapply st_eqB_trans; [|exact EQ']. apply abs_heap_same; auto.
    + intros Ho. rewrite lgetL_other by (apply Hspill; lia). rewrite Oth3 by (apply Hspill; lia). rewrite <- WA. exact (Vl Ho).
    + intros i b Hi. destruct (V i b Hi) as [A B]. rewrite !WA in A, B.
      rewrite !lgetL_other by (apply Hspill; fold Eb; lia). rewrite !Oth3 by (apply Hspill; fold Eb; lia). auto.
    + intros l (L1 & L2 & L3 & L4) Hr. destruct (xtemp_eqb_spec l (XR TEMPORARY_TEMP)) as [->|Hl].
      * rewrite !lgetL_tt. exact Sv3.
      * rewrite !lgetL_other by exact Hl. rewrite Oth3 by exact Hl. rewrite Oth by auto. apply OthA; auto.
    + intros a Ha. rewrite W3. now apply NBs.
    + intros Hm x Hx. rewrite W3. now apply Hds.
    + destruct HH as (h' & HH). exists h'. now rewrite H3.
    + congruence.
    + exact FR3.
    + apply (stack_frame_trans s s2); [exact (stack_frame_trans _ _ _ _ SFA SF2)|exact SF3].
Qed.

Lemma load_fields_one_block_shape to_load existing m lc cs fr lc' klink :
  (1 <= List.length to_load <= 3)%nat ->
  load_fields (S (List.length to_load)) to_load existing Last m false lc = Ok (cs, fr, lc') ->
  let t := tpos (2 * N.of_nat (List.length existing)) in
  (2 * N.of_nat (List.length existing) < MAXPOS)%N /\
  exists lv, load_values (rev to_load) existing (blk_reg_of t) 3 m lc = Ok (lv, lc') /\
    cs = lf_blk_code t false Last m klink lv.
Proof.
  intros Hlen H t. cbn [load_fields] in H.
  destruct to_load as [|x r]; [cbn in Hlen; lia|].
  change (FIELDS_PER_BLOCK - bp_n Last)%N with 3%N in H.
  assert (Hle : N.leb (N.of_nat (List.length (x :: r))) 3 = true) by (apply N.leb_le; cbn [List.length] in *; lia).
  rewrite Hle in H. change (N.to_nat 0) with 0%nat in H. cbn [firstn skipn List.length load_fields rbind] in H.
  rewrite app_nil_r in H.
  destruct (x_fresh Fst existing) as [t'|] eqn:Et; [|discriminate]. cbn [rbind] in H.
  apply x_fresh_tpos in Et as [-> Hk]. cbn [tnum_n] in *. rewrite N.add_0_r in *. fold t in H.
  split; [exact Hk|].
  destruct t as [mr|mp]; cbn [blk_reg_of lf_blk_code link_load_code].
  - destruct (load_values (rev (x :: r)) existing mr 3 m lc) as [[c3 lc3]|] eqn:E3; [|discriminate]. cbn [rbind] in H.
    inversion H. exists c3. split; [reflexivity|]. cbn [app]. reflexivity.
  - destruct (load_values (rev (x :: r)) existing TEMPORARY_TEMP 3 m lc) as [[c3 lc3]|] eqn:E3; [|discriminate]. cbn [rbind] in H.
    inversion H. exists c3. split; [reflexivity|]. cbn [app]. now rewrite <- !app_assoc.
Qed.

Lemma load_register_shape br to_load existing lc cs lc' :
  load_register br to_load existing lc = Ok (cs, lc') ->
  exists thn fr1 lc1 els fr2 lc2,
    load_fields (S (List.length to_load)) to_load existing Last Release false lc = Ok (thn, fr1, lc1) /\
    load_fields (S (List.length to_load)) to_load existing Last Share false lc1 = Ok (els, fr2, lc2) /\
    cs = [CMPIM br 0 0; JEL (lab (lc2 + 1))] ++ ([ADDIM br 0 (-1)] ++ els) ++
         [JMPL (lab (lc2 + 2)); LAB (lab (lc2 + 1))] ++ thn ++ [LAB (lab (lc2 + 2))] /\
    lc' = (lc2 + 2)%N.
Proof.
  unfold load_register. intros H.
  destruct (load_fields (S (List.length to_load)) to_load existing Last Release false lc) as [[[thn fr1] lc1]|] eqn:E1; [|discriminate].
  cbn [rbind] in H.
  destruct (load_fields (S (List.length to_load)) to_load existing Last Share false lc1) as [[[els fr2] lc2]|] eqn:E2; [|discriminate].
  cbn [rbind] in H. unfold if_zero_then_else in H. inversion H.
  exists thn, fr1, lc1, els, fr2, lc2. repeat split; auto.
Qed.

Lemma pnth_app_len pos (a b : list xcode) : pnth pos (List.length (a ++ b)) = pnth (pnth pos (List.length a)) (List.length b).
Proof. now rewrite app_length, pnth_add. Qed.

Definition load_pre (s : xstate) (p : Z) (E : nat) (to_load : list binding) : Prop :=
  let n := List.length to_load in
  (forall j, (j < 3)%N -> hword s (p + field_offset Fst j) = 0 \/ is_blk (hword s (p + field_offset Fst j))) /\
  (forall j, (j < 3 - N.of_nat n)%N -> hword s (p + field_offset Fst j) = 0) /\
  (forall i b, nth_error to_load i = Some b -> bchi b = Ext -> hword s (p + field_offset Fst (3 - N.of_nat n + N.of_nat i)) = 0) /\
  (forall x, is_blk x -> min_int + 1 <= hword s x <= max_int - 3).

End Load.

Lemma x_load_shape to_load existing lc cs lc' :
  x_load to_load existing lc = Ok (cs, lc') -> to_load <> [] ->
  let t := tpos (2 * N.of_nat (List.length existing)) in
  (2 * N.of_nat (List.length existing) < MAXPOS)%N /\
  match t with
  | XR r => load_register r to_load existing lc = Ok (cs, lc')
  | XS q => exists c1, load_register TEMP to_load existing lc = Ok (c1, lc') /\ cs = [MOVL TEMP STACK (stack_offset q)] ++ c1
  end.
Proof.
  intros Hx Hne t. unfold x_load in Hx. destruct to_load as [|x0 r0]; [contradiction|].
  destruct (x_fresh Fst existing) as [t'|] eqn:Et; [|discriminate]. cbn [rbind] in Hx.
  apply x_fresh_tpos in Et as [-> Hk]. cbn [tnum_n] in *. rewrite N.add_0_r in *. fold t in Hx.
  split; [exact Hk|]. destruct t as [r|q]; [exact Hx|].
  destruct (load_register TEMP (x0 :: r0) existing lc) as [[c1 lc1]|]; [|discriminate]. cbn [rbind fst snd] in Hx.
  inversion Hx. exists c1. auto.
Qed.

(* load_register and x_load: the header test and the two branches (release and plain loads, or decrement,
   loads and shares), stated over what the code of load_fields does for the object at p (`Fields`), so that
   the one-block theorem below and the chained objects of Proof/X86MemLoadChain.v are both instances:
   `Abs m w` is the abstract effect of the loads in mode m read off the words w, `OK m w` what they need
   of the words, `addr w i` the address of the pointer slot of variable i. *)
Section LoadRegister.
Variable im : image.
Variables (to_load existing : ctx) (p : Z).
Variable Abs : load_mode -> (Z -> Z) -> Heap.st -> Heap.st.
Variable OK : load_mode -> (Z -> Z) -> Prop.
Variable addr : (Z -> Z) -> nat -> Z.

Hypothesis Fields : forall m lc cs fr lc' pos s sp h F,
  load_fields (S (List.length to_load)) to_load existing Last m false lc = Ok (cs, fr, lc') ->
  code_at im pos cs -> labels_at im pos cs -> frame_ok s sp ->
  lget s sp (tpos (2 * N.of_nat (List.length existing))) = Some p -> rget s HEAP = Some h ->
  OK m (hword s) ->
  (m = Share -> forall x, is_blk x -> min_int <= hword s x /\ hword s x + Z.of_nat (List.length to_load) <= max_int) ->
  exists s', steps im pos s (pnth pos (List.length cs)) s' /\
    st_eqB (abs_heap F s') (Abs m (hword s) (abs_heap F s)) /\
    (forall i b, nth_error to_load i = Some b ->
       lget s' sp (tpos (2 * N.of_nat (List.length existing + i) + 1)) = Some (hword s (addr (hword s) i + 8)) /\
       (bchi b <> Ext -> lget s' sp (tpos (2 * N.of_nat (List.length existing + i))) = Some (hword s (addr (hword s) i)))) /\
    (forall l, untouched l ->
       (forall k, (2 * N.of_nat (List.length existing) <= k <= 2 * N.of_nat (List.length existing + List.length to_load))%N -> l <> tpos k) ->
       lget s' sp l = lget s sp l) /\
    out s' = out s /\ frame_ok s' sp /\ nonblk_same s s' /\ (exists h', rget s' HEAP = Some h') /\ stack_frame s s' sp.
(* the loads read link and field words only, which are not block headers *)
Hypothesis Words_ext : forall m w w' a a', (forall x, ~ is_blk x -> w' x = w x) -> OK m w -> st_eqB a a' ->
  (forall i, addr w' i = addr w i) /\ OK m w' /\ st_eqB (Abs m w' a) (Abs m w a').
Hypothesis addr_field : forall w i, OK Share w -> (i < List.length to_load)%nat -> ~ is_blk (addr w i) /\ ~ is_blk (addr w i + 8).

Theorem x86_load_gen pos lc cs lc' s sp h F :
  x_load to_load existing lc = Ok (cs, lc') -> to_load <> [] ->
  code_at im pos cs -> labels_at im pos cs -> frame_ok s sp ->
  lget s sp (tpos (2 * N.of_nat (List.length existing))) = Some p -> is_blk p -> rget s HEAP = Some h ->
  OK Release (hword s) -> (hword s p <> 0 -> OK Share (hword s)) ->
  (forall x, is_blk x -> min_int + 1 <= hword s x /\ hword s x + Z.of_nat (List.length to_load) <= max_int) ->
  exists s', steps im pos s (pnth pos (List.length cs)) s' /\
    st_eqB (abs_heap F s')
      (if hword s p =? 0 then Abs Release (hword s) (abs_heap F s) else Abs Share (hword s) (Heap.dec p (abs_heap F s))) /\
    (forall i b, nth_error to_load i = Some b ->
       lget s' sp (tpos (2 * N.of_nat (List.length existing + i) + 1)) = Some (hword s (addr (hword s) i + 8)) /\
       (bchi b <> Ext -> lget s' sp (tpos (2 * N.of_nat (List.length existing + i))) = Some (hword s (addr (hword s) i)))) /\
    (forall k, (k < 2 * N.of_nat (List.length existing))%N -> lget s' sp (tpos k) = lget s sp (tpos k)) /\
    out s' = out s /\ frame_ok s' sp /\
    nonblk_same s s' /\ (exists h', rget s' HEAP = Some h') /\ rget s' FREE = rget s FREE /\ stack_frame s s' sp.
Proof.
  intros Hx Hne HC HL FR P Hb Hh OKr OKs Room.
  destruct (x_load_shape _ _ _ _ _ Hx Hne) as [Hk2E _].
  (* a common statement for the block register br that holds p for the header test *)
  assert (Main : forall br cs1 pos1 s0, load_register br to_load existing lc = Ok (cs1, lc') ->
     code_at im pos1 cs1 -> labels_at im pos1 cs1 -> frame_ok s0 sp ->
     rget s0 br = Some p -> lget s0 sp (tpos (2 * N.of_nat (List.length existing))) = Some p -> rget s0 HEAP = Some h ->
     (forall a, hword s0 a = hword s a) ->
     exists s', steps im pos1 s0 (pnth pos1 (List.length cs1)) s' /\
       st_eqB (abs_heap F s')
         (if hword s p =? 0 then Abs Release (hword s) (abs_heap F s0) else Abs Share (hword s) (Heap.dec p (abs_heap F s0))) /\
       (forall i b, nth_error to_load i = Some b ->
          lget s' sp (tpos (2 * N.of_nat (List.length existing + i) + 1)) = Some (hword s (addr (hword s) i + 8)) /\
          (bchi b <> Ext -> lget s' sp (tpos (2 * N.of_nat (List.length existing + i))) = Some (hword s (addr (hword s) i)))) /\
       (forall k, (k < 2 * N.of_nat (List.length existing))%N -> lget s' sp (tpos k) = lget s0 sp (tpos k)) /\
       out s' = out s0 /\ frame_ok s' sp /\
       nonblk_same s s' /\ (exists h', rget s' HEAP = Some h') /\ rget s' FREE = rget s0 FREE /\ stack_frame s0 s' sp).
  { clear HC HL Hx pos cs. intros br cs pos s0 Hlr HC HL FR0 Rb P0 Hh0 W0.
    destruct (load_register_shape _ _ _ _ _ _ Hlr) as (thn & fr1 & lc1 & els & fr2 & lc2 & Ethn & Eels & -> & _).
    pose proof (blk_heap_addr p Hb) as Ha.
    set (seg2 := [ADDIM br 0 (-1)] ++ els) in *.
    apply code_at_app2 in HC as [HC1 HCr]. apply labels_at_app2 in HL as [_ HLr].
    apply code_at_app2 in HCr as [HC2 HCr]. apply labels_at_app2 in HLr as [HL2 HLr].
    apply code_at_app2 in HCr as [HC3 HCr]. apply labels_at_app2 in HLr as [HL3 HLr].
    apply code_at_app2 in HCr as [HC4 HC5]. apply labels_at_app2 in HLr as [HL4 HL5].
    rewrite !pnth_app_len.
    set (p2 := pnth pos (List.length [CMPIM br 0 0; JEL (lab (lc2 + 1))])) in *.
    set (p3 := pnth p2 (List.length seg2)) in *.
    set (p4 := pnth p3 (List.length [JMPL (lab (lc2 + 2)); LAB (lab (lc2 + 1))])) in *.
    set (p5 := pnth p4 (List.length thn)) in *.
    pose proof (HL3 1%nat _ eq_refl) as Lthen. pose proof (HL5 0%nat _ eq_refl) as Lelse. cbn [pnth] in Lelse.
    set (sa := set_flags s0 (Some (hword s0 p, 0))).
    assert (STa : steps im pos s0 (Pos.succ pos) sa).
    { eapply steps_next; [apply (HC1 0%nat); reflexivity| |apply steps_refl]. eapply step_CMPIM0_heap; [exact Rb|exact Ha]. }
    assert (FRa : frame_ok sa sp) by (now apply frame_ok_set_flags).
    assert (Wa : forall a, hword sa a = hword s a) by exact W0.
    (* what the loads leave alone covers the temporaries of the variables before and the free pointer *)
    assert (Frame : forall s1 s' : xstate, (forall l, untouched l ->
              (forall k, (2 * N.of_nat (List.length existing) <= k <= 2 * N.of_nat (List.length existing + List.length to_load))%N -> l <> tpos k) ->
              lget s' sp l = lget s1 sp l) ->
            (forall k, (k < 2 * N.of_nat (List.length existing))%N -> lget s' sp (tpos k) = lget s1 sp (tpos k)) /\
            rget s' FREE = rget s1 FREE).
    { intros s1 s' Hfr. split.
      - intros k Hk. apply Hfr; [|intros k' Hk'; apply tpos_neq; lia].
        destruct (tpos_not_reserved k) as (_ & U2 & U3 & _ & U5). split; [apply tpos_loc_ok; lia|auto].
      - apply (Hfr (XR FREE)); [|intros k _; apply not_eq_sym, tpos_not_reserved].
        split; [cbn; discriminate|]. split; [discriminate|]. split; discriminate. }
    destruct (Z.eqb_spec (hword s p) 0) as [H0|Hn0].
    - (* last reference: release, plain loads *)
      destruct (Words_ext Release (hword s) (hword sa) (abs_heap F sa) (abs_heap F s0) (fun a _ => Wa a) OKr)
        as (X2 & X3 & X4); [apply abs_heap_same; reflexivity|].
      destruct (Fields Release lc thn fr1 lc1 p4 sa sp h F Ethn HC4 HL4 FRa P0 Hh0 X3 ltac:(discriminate))
        as (sb & STb & EQb & Vb & Ob & Outb & FRb & NBb & HHb & SFb).
      destruct (Frame sa sb Ob) as [Ob1 Ob2].
      exists sb. split; [|split; [|split; [|split; [exact Ob1|split; [exact Outb|split; [exact FRb|split; [|split; [exact HHb|split; [exact Ob2|]]]]]]]]].
      + eapply steps_trans; [exact STa|].
        eapply steps_jump; [apply (HC1 1%nat); reflexivity| |].
        { rewrite (step_JEL im _ _ (hword s0 p) 0) by reflexivity. rewrite W0, H0. cbn [Z.eqb]. unfold goto_label. rewrite Lthen. reflexivity. }
        eapply steps_next; [apply (HC3 1%nat); reflexivity|reflexivity|].
        change (Pos.succ (pnth p3 1)) with p4.
        eapply steps_trans; [exact STb|]. fold p5.
        eapply steps_next; [apply (HC5 0%nat); reflexivity|reflexivity|]. apply steps_refl.
      + eapply st_eqB_trans; [exact EQb|exact X4].
      + intros i b Hi. destruct (Vb i b Hi) as [VS VF]. rewrite X2 in VS, VF. rewrite !Wa in VS, VF. auto.
      + intros a0 Hna. rewrite NBb by exact Hna. apply Wa.
      + apply (stack_frame_trans s0 sa); [apply stack_frame_set_flags|exact SFb].
    - (* other references remain: decrement, load and share *)
      destruct (Room p Hb) as [Rlo Rhi].
      assert (Wd : wrap (hword s p + -1) = hword s p - 1) by (apply wrap_id; unfold min_int, max_int, two63 in *; lia).
      set (sd := set_flags (hset sa p (wrap (hword sa p + -1))) None).
      assert (FRd : frame_ok sd sp) by (apply frame_ok_set_flags, frame_ok_hset; exact FRa).
      assert (Wsd : forall a, hword sd a = if a =? p then hword s p - 1 else hword s a).
      { intros a. unfold sd. rewrite hword_set_flags, hword_hset by (now apply is_blk_pos). rewrite !Wa. now rewrite Wd. }
      assert (Wnb : forall a, ~ is_blk a -> hword sd a = hword s a).
      { intros a Hna. rewrite Wsd. destruct (Z.eqb_spec a p) as [->|]; [contradiction|reflexivity]. }
      assert (EQd : st_eqB (abs_heap F sd) (Heap.dec p (abs_heap F s0))).
      { unfold Heap.dec. split; [reflexivity|]. split; [reflexivity|]. split; [reflexivity|].
        intros x Hx'. cbn [abs_heap Heap.m]. unfold sd. rewrite Wa, Wd. change (Heap.hdr (abs_mem s0 p)) with (hword s0 p). rewrite W0.
        change (abs_mem (set_flags (hset sa p (hword s p - 1)) None) x) with (abs_mem (hset s0 p (hword s p - 1)) x).
        now apply abs_mem_hset. }
      destruct (Words_ext Share (hword s) (hword sd) (abs_heap F sd) (Heap.dec p (abs_heap F s0)) Wnb (OKs Hn0) EQd) as (X2 & X3 & X4).
      unfold seg2 in HC2, HL2. apply code_at_app2 in HC2 as [HC2a HC2b]. apply labels_at_app2 in HL2 as [_ HL2b].
      destruct (Fields Share lc1 els fr2 lc2 _ sd sp h F Eels HC2b HL2b FRd P0 Hh0 X3)
        as (se & STe & EQe & Ve & Oe & Oute & FRe & NBe & HHe & SFe).
      { intros _ x Hx'. destruct (Room x Hx'). rewrite Wsd. destruct (x =? p); lia. }
      destruct (Frame sd se Oe) as [Oe1 Oe2].
      exists se. split; [|split; [|split; [|split; [exact Oe1|split; [exact Oute|split; [exact FRe|split; [|split; [exact HHe|split; [exact Oe2|]]]]]]]]].
      + eapply steps_trans; [exact STa|].
        eapply steps_next; [apply (HC1 1%nat); reflexivity| |].
        { rewrite (step_JEL im _ _ (hword s0 p) 0) by reflexivity. rewrite W0. destruct (Z.eqb_spec (hword s p) 0); [contradiction|reflexivity]. }
        change (Pos.succ (Pos.succ pos)) with p2.
        eapply steps_next; [apply (HC2a 0%nat); reflexivity| |].
        { eapply step_ADDIM_heap; [exact Rb|exact Ha|reflexivity]. }
        fold sd. change (Pos.succ p2) with (pnth p2 (List.length [ADDIM br 0 (-1)])).
        eapply steps_trans; [exact STe|]. rewrite <- pnth_app_len. fold seg2. fold p3.
        eapply steps_jump; [apply (HC3 0%nat); reflexivity| |].
        { cbn [step]. unfold goto_label. rewrite Lelse. reflexivity. }
        eapply steps_next; [apply (HC5 0%nat); reflexivity|reflexivity|]. apply steps_refl.
      + eapply st_eqB_trans; [exact EQe|exact X4].
      + intros i b Hi. destruct (Ve i b Hi) as [VS VF]. rewrite X2 in VS, VF.
        assert (Hi' : (i < List.length to_load)%nat) by (apply nth_error_Some; congruence).
        destruct (addr_field (hword s) i (OKs Hn0) Hi') as [N1 N2].
        rewrite (Wnb _ N1) in VF. rewrite (Wnb _ N2) in VS. auto.
      + intros a0 Hna. rewrite NBe by exact Hna. now apply Wnb.
      + apply (stack_frame_trans s0 sd); [apply stack_frame_eq; reflexivity|exact SFe]. }
  destruct (x_load_shape _ _ _ _ _ Hx Hne) as [Hk Hsh]. cbv zeta in Hsh.
  destruct (tpos (2 * N.of_nat (List.length existing))) as [r|q] eqn:Etp.
  - cbn [lget] in P. rewrite <- Etp in *.
    apply (Main r cs pos s Hsh HC HL FR); auto. rewrite Etp. exact P.
  - destruct Hsh as (c1 & Elr & ->).
    assert (Q : slot_ok q) by (pose proof (tpos_loc_ok _ Hk) as L; rewrite Etp in L; exact L).
    cbn [lget] in P.
    apply code_at_app2 in HC as [HC1 HC2]. apply labels_at_app2 in HL as [_ HL2].
    set (s0 := rset s TEMP (Some p)).
    assert (FR0 : frame_ok s0 sp) by (apply frame_ok_rset; [discriminate|exact FR]).
    rewrite <- Etp in *.
    destruct (Main TEMP c1 _ s0 Elr HC2 HL2 FR0) as (s' & ST & EQ & V & O & Out & FR' & NB' & HH' & FF' & SF'); auto.
    { apply rget_rset_same. }
    { rewrite Etp. cbn [lget]. unfold s0. rewrite sget_rset. exact P. }
    { unfold s0. rewrite rget_rset_other by discriminate. exact Hh. }
    exists s'. split; [|split; [|split; [exact V|split; [|split; [exact Out|split; [exact FR'|split; [exact NB'|split; [exact HH'|split]]]]]]]].
    + eapply steps_app_len; [|exact ST].
      eapply steps_next; [apply (HC1 0%nat); reflexivity| |apply steps_refl].
      rewrite (step_MOVL_slot im s sp FR) by exact Q. rewrite P. reflexivity.
    + eapply st_eqB_trans; [exact EQ|].
      assert (E0 : st_eqB (abs_heap F s0) (abs_heap F s)) by (unfold s0; rewrite abs_heap_rset by discriminate; apply st_eqB_refl).
      destruct (Z.eqb_spec (hword s p) 0) as [H0|Hn0].
      * apply (Words_ext Release (hword s) (hword s) _ _ (fun a _ => eq_refl) OKr E0).
      * apply (Words_ext Share (hword s) (hword s) _ _ (fun a _ => eq_refl) (OKs Hn0)). apply dec_st_eqB; auto.
    + intros k Hk'. rewrite O by exact Hk'. unfold s0.
      pose proof (tpos_not_temp k) as NT. destruct (tpos k) as [r|q']; cbn [lget]; [apply rget_rset_other; congruence|apply sget_rset].
    + rewrite FF'. unfold s0. apply rget_rset_other. discriminate.
    + apply (stack_frame_trans s s0); [apply stack_frame_rset|exact SF'].
Qed.
End LoadRegister.

Section LoadOne.
Variable im : image.

Theorem x86_load_one_block_ok pos to_load existing lc cs lc' s sp p h F :
  x_load to_load existing lc = Ok (cs, lc') ->
  (1 <= List.length to_load <= 3)%nat ->
  code_at im pos cs -> labels_at im pos cs -> frame_ok s sp ->
  lget s sp (tpos (2 * N.of_nat (List.length existing))) = Some p -> is_blk p -> rget s HEAP = Some h ->
  load_pre s p (List.length existing) to_load ->
  exists s', steps im pos s (pnth pos (List.length cs)) s' /\
    st_eqB (abs_heap F s') (Heap.load p (abs_heap F s)) /\
    (forall i b, nth_error to_load i = Some b ->
       lget s' sp (tpos (2 * N.of_nat (List.length existing + i) + 1)) =
         Some (hword s (p + field_offset Snd (3 - N.of_nat (List.length to_load) + N.of_nat i))) /\
       (bchi b <> Ext -> lget s' sp (tpos (2 * N.of_nat (List.length existing + i))) =
         Some (hword s (p + field_offset Fst (3 - N.of_nat (List.length to_load) + N.of_nat i))))) /\
    (forall k, (k < 2 * N.of_nat (List.length existing))%N -> lget s' sp (tpos k) = lget s sp (tpos k)) /\
    out s' = out s /\ frame_ok s' sp.
Proof.
  intros Hx Hlen HC HL FR P Hb Hh (Kall & Kz & Ke & Room).
  set (n := List.length to_load) in *. set (E := List.length existing) in *.
  assert (Hne : to_load <> []) by (intros ->; cbn in Hlen; lia).
  pose (Abs := fun (m : load_mode) (w : Z -> Z) (a : Heap.st) =>
                 lv_abs m w (rev to_load) p 3 (match m with Release => Heap.release p a | Share => a end)).
  pose (OK := fun (m : load_mode) (w : Z -> Z) => lv_kids m w (rev to_load) p 3).
  pose (addr := fun (_ : Z -> Z) (i : nat) => p + field_offset Fst (3 - N.of_nat n + N.of_nat i)).
  destruct (x86_load_gen im to_load existing p Abs OK addr) with (pos := pos) (lc := lc) (cs := cs) (lc' := lc') (s := s) (sp := sp) (h := h) (F := F)
    as (s' & ST & EQ & V & O & Out & FR' & _); auto.
  - (* what load_fields does: the one block *)
    intros m lc0 cs0 fr lc0' pos0 s0 sp0 h0 F0 Hlf HC0 HL0 FR0 P0 Hh0 OK0 Room0.
    destruct (load_fields_one_block_shape _ _ _ _ _ _ _ (2 * N.of_nat (E + n)) Hlen Hlf) as (Hk & lv & Hlv & ->).
    pose proof (x86_lf_blk_ok im pos0 Last to_load existing m lc0 lv lc0' false (2 * N.of_nat (E + n)) s0 sp0 p h0 F0) as BL.
    cbv zeta in BL. change (3 - bp_n Last)%N with 3%N in BL. fold E n in BL.
    destruct (BL Hlv Hne ltac:(lia) eq_refl Hk ltac:(discriminate) HC0 HL0 FR0 ltac:(discriminate))
      as (s1 & ST & EQ & _ & V & Oth & NB & _ & HH & O & FR1 & SF); auto.
    { rewrite lgetL_false. exact P0. }
    assert (Ef : freed_after (tpos (2 * N.of_nat E)) false Last = false) by (destruct (tpos (2 * N.of_nat E)); reflexivity).
    rewrite Ef in V, Oth.
    exists s1. split; [exact ST|]. split; [exact EQ|]. split; [|split; [|auto 10]].
    + intros i b Hi. destruct (V i b Hi) as [A B]. rewrite !lgetL_false in A, B. unfold addr. rewrite <- Z.add_assoc, <- fo_snd_fst. auto.
    + intros l U Hr. rewrite <- (lgetL_false s1 sp0), Oth, lgetL_false; auto.
  - intros m w w' a a' Hw OKw E0. split; [reflexivity|].
    assert (Hfld : forall j, (j < 3)%N -> w' (p + field_offset Fst j) = w (p + field_offset Fst j)).
    { intros j Hj. apply Hw. now apply field_not_blk. }
    assert (OKw' : lv_kids m w' (rev to_load) p 3).
    { eapply lv_kids_congr; [|rewrite rev_length; lia|exact OKw]. intros j Hj. symmetry. now apply Hfld. }
    split; [exact OKw'|]. apply lv_abs_congr; auto.
    + destruct m; [apply release_st_eqB; auto|exact E0].
    + rewrite rev_length. lia.
  - intros w i _ Hi. unfold addr. split; [|rewrite <- Z.add_assoc, <- fo_snd_fst]; apply field_not_blk; auto; lia.
  - apply lv_kids_release.
  - intros _. apply lv_kids_all; [exact Kall|rewrite rev_length; lia].
  - intros x Hx'. destruct (Room x Hx'). fold n. lia.
  - exists s'. split; [exact ST|]. split; [|split; [|auto]].
    + eapply st_eqB_trans; [exact EQ|]. unfold Abs, Heap.load. change (Heap.hdr (Heap.m (abs_heap F s) p)) with (hword s p).
      destruct (hword s p =? 0).
      * rewrite lv_abs_release. apply st_eqB_refl.
      * unfold Heap.load_share. cbn [abs_heap Heap.m abs_mem Heap.ps]. apply lv_abs_share_list; auto. lia.
    + intros i b Hi. destruct (V i b Hi) as [A B]. unfold addr in A, B. rewrite <- Z.add_assoc, <- fo_snd_fst in A. auto.
Qed.
End LoadOne.

(* the hypotheses are satisfiable: an object with an integer and a pointer field, shared *)
Definition ex_lstate : xstate :=
  hset (hset (hset (hset
    (rset (rset (rset (rset (init_state []) 0 (Some ex_sp)) HEAP (Some (HEAP_BASE + 128))) FREE (Some (HEAP_BASE + 192))) 4 (Some HEAP_BASE))
    HEAP_BASE 1) (HEAP_BASE + 40) 42) (HEAP_BASE + 48) (HEAP_BASE + 64)) (HEAP_BASE + 56) 7.
Definition ex_load_code : list xcode := match x_load ex_store [] 0 with Ok (cs, _) => cs | Err _ => [] end.

Example x86_load_one_block_example :
  exists lc', x_load ex_store [] 0 = Ok (ex_load_code, lc') /\
  exists s', steps (mk_image ex_load_code) 1 ex_lstate (pnth 1 (List.length ex_load_code)) s' /\
     st_eqB (abs_heap (HEAP_BASE + 192) s') (Heap.load HEAP_BASE (abs_heap (HEAP_BASE + 192) ex_lstate)) /\
     rget s' 5%N = Some 42 /\ rget s' 6%N = Some (HEAP_BASE + 64) /\ rget s' 7%N = Some 7 /\
     Heap.hdr (Heap.m (Heap.load HEAP_BASE (abs_heap (HEAP_BASE + 192) ex_lstate)) (HEAP_BASE + 64)) = 1.
Proof.
  eexists. split; [vm_compute; reflexivity|].
  destruct (mk_image_code_labels ex_load_code) as [HC HL]; [apply nodupb_sound; vm_compute; reflexivity|].
  assert (Hx : exists lc', x_load ex_store [] 0 = Ok (ex_load_code, lc')) by (eexists; vm_compute; reflexivity).
  destruct Hx as [lc' Hx].
  assert (W16 : hword ex_lstate (HEAP_BASE + 16) = 0) by (vm_compute; reflexivity).
  assert (W32 : hword ex_lstate (HEAP_BASE + 32) = 0) by (vm_compute; reflexivity).
  assert (W48 : hword ex_lstate (HEAP_BASE + 48) = HEAP_BASE + 64) by (vm_compute; reflexivity).
  assert (B0 : is_blk HEAP_BASE) by (apply (is_blk_nth 0); unfold HEAP_SIZE; lia).
  assert (B1 : is_blk (HEAP_BASE + 64)) by (apply (is_blk_nth 1); unfold HEAP_SIZE; lia).
  destruct (x86_load_one_block_ok (mk_image ex_load_code) 1 ex_store [] 0 ex_load_code lc' ex_lstate ex_sp HEAP_BASE (HEAP_BASE + 128)
              (HEAP_BASE + 192) Hx ltac:(cbn; lia) HC HL)
    as (s' & ST & EQ & V & _).
  - split; [vm_compute; reflexivity|exact sp_ok_below_top].
  - vm_compute; reflexivity.
  - exact B0.
  - vm_compute; reflexivity.
  - split; [|split; [|split]].
    + intros j Hj. assert (Hc : (j = 0 \/ j = 1 \/ j = 2)%N) by lia.
      destruct Hc as [->|[->| ->]]; rewrite ?fo_F0, ?fo_F1, ?fo_F2, ?W16, ?W32, ?W48; auto.
    + intros j Hj. cbn in Hj. assert (j = 0%N) by lia. subst j. rewrite fo_F0. exact W16.
    + intros i b Hi Hb. destruct i as [|[|[|i]]]; cbn in Hi; try discriminate; inversion Hi; subst b; cbn in Hb; try discriminate.
      cbn. exact W32.
    + intros x Hx'. unfold ex_lstate. rewrite !hword_hset by (vm_compute; reflexivity). rewrite !hword_rset.
      replace (hword (init_state []) x) with 0 by (unfold hword, init_state; cbn [heap]; now rewrite PM.gempty).
      unfold min_int, max_int, two63, HEAP_BASE.
      repeat match goal with |- context [?a =? ?b] => destruct (Z.eqb_spec a b) end; lia.
  - exists s'. split; [exact ST|]. split; [exact EQ|].
    destruct (V 0%nat _ eq_refl) as [V0 _]. destruct (V 1%nat _ eq_refl) as [V1 V1'].
    split; [exact V0|]. split; [apply V1'; discriminate|]. split; [exact V1|]. vm_compute; reflexivity.
Qed.

Print Assumptions x86_load_values_rev_ok.
Print Assumptions x86_load_one_block_ok.
Print Assumptions x86_load_one_block_example.
