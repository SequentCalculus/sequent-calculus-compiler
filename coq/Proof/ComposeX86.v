(* C01: the composition of Proof/Compose.v with the x86-64 link DISCHARGED for the integer fragment by
   the forward simulation of the code generator (Proof/X86SimTop.x86_codegen_correct_int) and the
   linear well-typedness of linearized programs (C05 linearize_exact).  The hypothesis that replaces
   H_x86 is evaluated on the compiler's intermediate result: the linearized program is in the integer
   fragment and the emitted instruction list passes the assembler-level check asm_wf. *)
From Coq Require Import List ZArith NArith String Ascii Bool Lia.
From SCC Require Import Base.Sexp Lang.AxSyn Lang.FunSyn Lang.CoreSyn Sem.AxSem Sem.CoreSem Sem.FunSem Sem.X86Sem Sem.X86Wf
     Model.Backend Model.Fun2Core Model.Focus Model.FocusCheck Model.Shrink Model.Linearize Model.LinCheck Model.X86 Model.Runtime
     Proof.RuntimeProof Proof.LinSim Proof.LinearizeProof Proof.Compose Proof.X86SimAddr Proof.X86SimProg Proof.X86SimTop Proof.X86SimProgC Proof.X86SimTopC.
Import ListNotations.
Open Scope Z_scope.

Section PipelineInt.
Hypothesis fun2core_correct : link_fun2core.
Hypothesis focus_preserves : link_focus.
Hypothesis shrink_correct : link_shrink.

Theorem compile_correct_int_partial :
  forall (p : fcprog) (c : cprog) (f : fsprog) (a : prog) (cs : list xcode) (nargs : nat) (lc lc' : N)
         (args : list Z) (n : nat) (o : obs),
    annotated_fcprog p = true -> effect_sequenced p = true -> barendregt p = true ->
    compile_prog p = Fun2Core.Ok c -> pre_check c = true -> focus_wf c = true ->
    focus_prog c = Backend.Ok f -> shrink_prog f = SOk a -> prog_ok a = true ->
    x86_compile (linearize a) lc = Backend.Ok (cs, nargs, lc') ->
    (* the x86-64 link: integer fragment, checked on the linearized program and on the emitted code *)
    int_frag (linearize a) = true -> plain_names (linearize a) = true -> asm_wf cs = None ->
    run_fun n p args = o -> out_ok o ->
    (exists outer inner, fst (run_x86 outer inner cs args) = o) /\
    (Forall (fun pz => in_i64 (snd pz)) (fst o) ->
     bytes_of_string (render_prints (fst o)) = flat_map runtime_bytes (fst o)).
Proof.
  intros p c f a cs nargs lc lc' args n o An Es Ba Hc Hpre Hwf Hf Hs Hok Hx Hint Hpl Hasm Hrun OK.
  pose proof (out_ok_defined o OK) as D.
  destruct (chain_to_linear c f a args o OK) as (m & R);
    [exact (fun2core_correct p c args n o An Es Ba Hc Hrun D) | exact (focus_link focus_preserves c f args o Hpre Hwf Hf OK)
    |intros m R; exact (shrink_correct f a m args o Hs R (out_ok_final o OK)) | exact Hok |].
  split; [exact (x86_codegen_correct_int (linearize a) lc cs nargs lc' args m o Hint Hpl (linearize_exact a Hok) Hasm Hx R D) | apply render_prints_is_runtime_output].
Qed.

(* the same with the x86-64 link discharged for the CLOSURE fragment (integers and closures without
   captured variables: first-order tail-recursive integer programs with their return continuations) *)
Theorem compile_correct_cf_partial :
  forall (p : fcprog) (c : cprog) (f : fsprog) (a : prog) (cs : list xcode) (nargs : nat) (lc lc' : N)
         (args : list Z) (n : nat) (o : obs),
    annotated_fcprog p = true -> effect_sequenced p = true -> barendregt p = true ->
    compile_prog p = Fun2Core.Ok c -> pre_check c = true -> focus_wf c = true ->
    focus_prog c = Backend.Ok f -> shrink_prog f = SOk a -> prog_ok a = true ->
    x86_compile (linearize a) lc = Backend.Ok (cs, nargs, lc') ->
    cf_frag (linearize a) = true -> entry_int (linearize a) = true ->
    plain_names (linearize a) = true -> plain_types (linearize a) = true ->
    asm_wf cs = None -> code_small cs = true ->
    run_fun n p args = o -> out_ok o ->
    (exists outer inner, fst (run_x86 outer inner cs args) = o) /\
    (Forall (fun pz => in_i64 (snd pz)) (fst o) ->
     bytes_of_string (render_prints (fst o)) = flat_map runtime_bytes (fst o)).
Proof.
  intros p c f a cs nargs lc lc' args n o An Es Ba Hc Hpre Hwf Hf Hs Hok Hx Hcf Hei Hpl Hpt Hasm Hsm Hrun OK.
  pose proof (out_ok_defined o OK) as D.
  destruct (chain_to_linear c f a args o OK) as (m & R);
    [exact (fun2core_correct p c args n o An Es Ba Hc Hrun D) | exact (focus_link focus_preserves c f args o Hpre Hwf Hf OK)
    |intros m R; exact (shrink_correct f a m args o Hs R (out_ok_final o OK)) | exact Hok |].
  split; [exact (x86_codegen_correct_cf (linearize a) lc cs nargs lc' args m o Hcf Hei Hpl Hpt (linearize_exact a Hok) Hasm Hsm Hx R D) | apply render_prints_is_runtime_output].
Qed.
End PipelineInt.
