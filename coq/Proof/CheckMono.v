(* C15, the checker on the fragment WITHOUT type parameters and type arguments ("mono" programs):
   invariants of the symbol table during checking, and the relation between the model's
   [check_term_gen] and the declarative [chk].  In this fragment instance names coincide with
   template names (print_targs [] = ""), so no reasoning about printed names is needed: the CheckMono* theorems
   hold for ARBITRARY names, the CheckPoly* theorems (same skeleton, all programs) need [prog_names_ok]; the
   CheckMono* files also carry the statement about the code before fix d524b1f (success or Undefined).
   CheckPoly* import the general parts of CheckMono / CheckMonoSound (frame conditions, [E], [clause_ok], the lookup lemmas).
   Every step lemma of both families concludes the FRAME of the step:  Inv st' /\ same_templates st st' /\ grows st st'
   (Inv = [minv] here, [pinv] there). *)
From Coq Require Import List ZArith String Bool Permutation Lia.
From SCC Require Import Base.Sexp Lang.SynUtil Lang.FunSyn Model.Check Sem.FunTyping
  Proof.FunInd Proof.FunEq Proof.CheckAnn Proof.TypingReject Proof.CheckBuild Proof.StringFacts.
Import ListNotations.
Open Scope list_scope.

Definition mono_ty (t : fty) : bool := match t with FI64 => true | FDecl _ [] => true | _ => false end.
Definition mono_ctx (c : fctx) : bool := forallb (fun b => mono_ty (fbty b)) c.
Definition no_targs (l : list fty) : bool := match l with [] => true | _ => false end.
Definition mono_ann (a : option fty) : bool := match a with None => true | Some t => mono_ty t end.

Fixpoint mono_term (t : fterm) : bool :=
  let ml := fix go (l : list fterm) : bool := match l with [] => true | a :: r => mono_term a && go r end in
  let mc := fix go (l : list fclause) : bool :=
    match l with [] => true | FClause _ _ _ _ b :: r => mono_term b && go r end in
  match t with
  | FVar _ a _ => mono_ann a
  | FLit _ => true
  | FOp a _ b => mono_term a && mono_term b
  | FIfC _ a b th el _ => mono_term a && match b with Some b' => mono_term b' | None => true end && mono_term th && mono_term el
  | FPrint _ a n _ => mono_term a && mono_term n
  | FLet _ vty a b _ => mono_ty vty && mono_term a && mono_term b
  | FCall _ args _ | FCtor _ args _ => ml args
  | FDtor s _ targs args _ => no_targs targs && mono_term s && ml args
  | FCase s targs cls _ => no_targs targs && mono_term s && mc cls
  | FNew cls _ => mc cls
  | FLabel _ t _ | FGoto _ t _ | FExit t _ | FParen t => mono_term t
  end.
Definition mono_terms (l : list fterm) : bool := forallb mono_term l.
Definition mono_clauses (l : list fclause) : bool := forallb (fun c => mono_term (clause_body c)) l.
(* the nested [fix go] of a Fixpoint over terms, pasted as the left side, folded into the named list function; the
   other *_eq lemmas of the Check* files do the same for their Fixpoints *)
Lemma mono_terms_eq : forall l,
  (fix go (l : list fterm) : bool := match l with [] => true | a :: r => mono_term a && go r end) l = mono_terms l.
Proof. induction l; simpl; [reflexivity|]. rewrite IHl. reflexivity. Qed.
Lemma mono_clauses_eq : forall l,
  (fix go (l : list fclause) : bool :=
     match l with [] => true | FClause _ _ _ _ b :: r => mono_term b && go r end) l = mono_clauses l.
Proof. induction l as [|[? ? ? ? ?] r IH]; simpl; [reflexivity|]. rewrite IH. reflexivity. Qed.

Definition mono_decl (d : fdecl) : bool :=
  match d with
  | FDData d => match fdaparams d with [] => true | _ => false end && forallb (fun c => mono_ctx (fctargs c)) (fdactors d)
  | FDCodata d => match fcoparams d with [] => true | _ => false end
                  && forallb (fun c => mono_ctx (fdtargs c) && mono_ty (fdtcont c)) (fcodtors d)
  | FDDef d => mono_ctx (fdctx d) && mono_ty (fdret d) && mono_term (fdbody d)
  end.
Definition mono_prog (p : fprog) : bool := forallb mono_decl (fpdecls p).

Lemma print_targs_nil : print_targs [] = ""%string.
Proof. reflexivity. Qed.
Lemma str_remove_nil : forall s, str_remove s "" = s.
Proof. reflexivity. Qed.
Lemma subst_ty_nil : forall t, subst_ty [] t = t.
Proof.
  fix IH 1. intros [|n args]; simpl; [reflexivity|]. f_equal.
  induction args as [|a r IHr]; simpl; [reflexivity|]. rewrite IH, IHr. reflexivity.
Qed.
Lemma subst_ctx_nil : forall c, subst_ctx [] c = c.
Proof.
  induction c as [|[v ch t] r IH]; simpl; [reflexivity|].
  unfold subst_binding. simpl. rewrite subst_ty_nil, IH. reflexivity.
Qed.
Lemma mono_ty_decl : forall n args, mono_ty (FDecl n args) = true -> args = [].
Proof. intros n [|a r] H; [reflexivity|discriminate]. Qed.

(* checking never touches the four tables built from the declarations, and only adds instances: an instance that
   exists stays (the xtor tables st_ctors / st_dtors follow st_types through the invariant) *)
Definition same_templates (st st' : symtab) : Prop :=
  st_type_templates st' = st_type_templates st /\ st_ctor_templates st' = st_ctor_templates st
  /\ st_dtor_templates st' = st_dtor_templates st /\ st_defs st' = st_defs st.
Definition grows (st st' : symtab) : Prop :=
  forall n, ahas (st_types st) n = true -> ahas (st_types st') n = true.
Lemma same_templates_refl : forall st, same_templates st st.
Proof. intros; repeat split. Qed.
Lemma same_templates_trans : forall a b c, same_templates a b -> same_templates b c -> same_templates a c.
Proof. intros a b c [? [? [? ?]]] [? [? [? ?]]]. repeat split; congruence. Qed.
Lemma grows_refl : forall st, grows st st.
Proof. intros st n H; exact H. Qed.
Lemma grows_trans : forall a b c, grows a b -> grows b c -> grows a c.
Proof. intros a b c H1 H2 n H. auto. Qed.
(* [chain] closes [grows a c] and [same_templates a c] by following the steps a -> b -> .. -> c recorded in the
   context; [frame] tries that, then assumption, and leaves what it cannot close (eauto with the two transitivity
   lemmas searches for long on the goals it cannot close) *)
Ltac chain :=
  match goal with
  | |- grows ?a ?a => apply grows_refl
  | |- same_templates ?a ?a => apply same_templates_refl
  | H : grows ?a ?c |- grows ?a ?c => exact H
  | H : same_templates ?a ?c |- same_templates ?a ?c => exact H
  | H : grows ?a ?b |- grows ?a ?c => tryif constr_eq a b then fail else (apply (grows_trans a b c H); chain)
  | H : same_templates ?a ?b |- same_templates ?a ?c =>
      tryif constr_eq a b then fail else (apply (same_templates_trans a b c H); chain)
  end.
Ltac frame := try first [chain | assumption | reflexivity].
Lemma tables_same : forall ts fs st st', tables ts fs st -> same_templates st st' -> tables ts fs st'.
Proof.
  intros ts fs st st' [A B C D L] [E1 [E2 [E3 E4]]]. constructor; intros; rewrite ?E1, ?E2, ?E3, ?E4; auto.
Qed.

Lemma insert_ctor_instances_mono : forall xs st,
  (forall x, In x xs -> exists sg, aget (st_ctor_templates st) x = Some sg) ->
  exists st', insert_ctor_instances [] "" xs st = COk st'
    /\ same_templates st st' /\ st_types st' = st_types st /\ st_dtors st' = st_dtors st
    /\ forall k, aget (st_ctors st') k = if mem k xs then aget (st_ctor_templates st) k else aget (st_ctors st) k.
Proof.
  induction xs as [|x r IH]; intros st H; simpl.
  - exists st. repeat split; reflexivity.
  - destruct (H x (or_introl eq_refl)) as [sg Hsg]. rewrite Hsg.
    destruct (IH (set_ctors st (ainsert (st_ctors st) (x ++ "")%string (subst_ctx [] sg)))) as [st' [Hr [Hs [Ht [Hd Hk]]]]].
    { intros y Hy. simpl. apply H. right. assumption. }
    exists st'. split; [exact Hr|]. simpl in *.
    split; [destruct Hs as [? [? [? ?]]]; repeat split; assumption|].
    split; [assumption|]. split; [assumption|].
    intros k. rewrite Hk. unfold mem. simpl.
    destruct (existsb (String.eqb k) r) eqn:Er.
    + rewrite orb_true_r. reflexivity.
    + rewrite orb_false_r. rewrite aget_ainsert, sapp_nil_r, subst_ctx_nil.
      rewrite (String.eqb_sym k x). destruct (String.eqb x k) eqn:E; [|reflexivity].
      apply String.eqb_eq in E. subst. symmetry. assumption.
Qed.
Lemma insert_dtor_instances_mono : forall xs st,
  (forall x, In x xs -> exists sg, aget (st_dtor_templates st) x = Some sg) ->
  exists st', insert_dtor_instances [] "" xs st = COk st'
    /\ same_templates st st' /\ st_types st' = st_types st /\ st_ctors st' = st_ctors st
    /\ forall k, aget (st_dtors st') k = if mem k xs then aget (st_dtor_templates st) k else aget (st_dtors st) k.
Proof.
  induction xs as [|x r IH]; intros st H; simpl.
  - exists st. repeat split; reflexivity.
  - destruct (H x (or_introl eq_refl)) as [[sg ret] Hsg]. rewrite Hsg.
    destruct (IH (set_dtors st (ainsert (st_dtors st) (x ++ "")%string (subst_ctx [] sg, subst_ty [] ret)))) as [st' [Hr [Hs [Ht [Hd Hk]]]]].
    { intros y Hy. simpl. apply H. right. assumption. }
    exists st'. split; [exact Hr|]. simpl in *.
    split; [destruct Hs as [? [? [? ?]]]; repeat split; assumption|].
    split; [assumption|]. split; [assumption|].
    intros k. rewrite Hk. unfold mem. simpl.
    destruct (existsb (String.eqb k) r) eqn:Er.
    + rewrite orb_true_r. reflexivity.
    + rewrite orb_false_r. rewrite aget_ainsert, sapp_nil_r, subst_ctx_nil, subst_ty_nil.
      rewrite (String.eqb_sym k x). destruct (String.eqb x k) eqn:E; [|reflexivity].
      apply String.eqb_eq in E. subst. symmetry. assumption.
Qed.
Lemma insert_ctor_instances_err : forall m sfx xs st e, insert_ctor_instances m sfx xs st = CErr e -> e = EUndefined.
Proof.
  induction xs as [|x r IH]; intros st e H; simpl in H; [discriminate|].
  destruct (aget (st_ctor_templates st) x); [eapply IH; eassumption|inversion H; reflexivity].
Qed.

Lemma insert_dtor_instances_err : forall m sfx xs st e, insert_dtor_instances m sfx xs st = CErr e -> e = EUndefined.
Proof.
  induction xs as [|x r IH]; intros st e H; simpl in H; [discriminate|].
  destruct (aget (st_dtor_templates st) x) as [[? ?]|]; [eapply IH; eassumption|inversion H; reflexivity].
Qed.

Lemma find_exists : forall {X} (f : X -> bool) l x, In x l -> f x = true -> exists y, find f l = Some y.
Proof.
  intros X f l x Hin Hf. destruct (find f l) eqn:E; [eauto|].
  eapply find_none in E; [|eassumption]. congruence.
Qed.
Lemma find_xsig_in_name : forall td x, In x (map xs_name (td_xtors td)) -> exists s, find_xsig td x = Some s.
Proof.
  intros td x H. apply in_map_iff in H. destruct H as [s [Hn Hin]].
  unfold find_xsig. eapply find_exists; [eassumption|]. rewrite Hn. apply String.eqb_refl.
Qed.
Lemma find_xsig_spec : forall td x s, find_xsig td x = Some s -> In s (td_xtors td) /\ xs_name s = x.
Proof. intros td x s H. unfold find_xsig in H. apply find_some in H. destruct H as [? E]. apply String.eqb_eq in E. auto. Qed.
Lemma fpol_eqb_refl : forall p, fpol_eqb p p = true.
Proof. destruct p; reflexivity. Qed.
Lemma fpol_eqb_eq : forall p q, fpol_eqb p q = true -> p = q.
Proof. destruct p, q; simpl; congruence. Qed.
Lemma find_xtor_exists : forall ts td x, In td ts -> In x (map xs_name (td_xtors td)) ->
  exists td' s, find_xtor ts (td_pol td) x = Some (td', s).
Proof.
  intros ts td x Hin Hx. destruct (find_xsig_in_name _ _ Hx) as [s Hs].
  unfold find_xtor.
  destruct (find_exists (fun t => fpol_eqb (td_pol t) (td_pol td) && is_some (find_xsig t x)) ts td Hin) as [td' Hf].
  { rewrite fpol_eqb_refl, Hs. reflexivity. }
  rewrite Hf. apply find_some in Hf. destruct Hf as [_ Hb]. apply andb_true_iff in Hb. destruct Hb as [_ Hb].
  destruct (find_xsig td' x) as [s'|]; [eauto|discriminate].
Qed.

Ltac splits := repeat match goal with |- _ /\ _ => split end.

Section Mono.
  Variable ts : list tdecl.
  Variable fs : list fdef.
  Hypothesis Hret : forall td s, In td ts -> td_pol td = FCodata -> In s (td_xtors td) -> xs_ret s <> None.

  Lemma template_xtors_present : forall st n pol ps xs,
    tables ts fs st -> aget (st_type_templates st) n = Some (pol, ps, xs) ->
    forall x, In x xs ->
      match pol with
      | FData => exists sg, aget (st_ctor_templates st) x = Some sg
      | FCodata => exists sg, aget (st_dtor_templates st) x = Some sg
      end.
  Proof.
    intros st n pol ps xs T H x Hx. rewrite (t_tt _ _ _ T) in H.
    destruct (find_type ts n) as [td|] eqn:Ef; [|discriminate]. simpl in H. unfold tt_val in H. inversion H; subst.
    pose proof (find_type_in _ _ _ Ef) as Hin.
    destruct (find_xtor_exists ts td x Hin Hx) as [td' [s Hs]].
    destruct (td_pol td) eqn:Ep.
    - rewrite (t_ct _ _ _ T), Hs. simpl. eauto.
    - rewrite (t_dt _ _ _ T), Hs. unfold dt_val. simpl.
      apply find_xtor_in in Hs. destruct Hs as [Hin' [Hp' Hs']]. apply find_xsig_spec in Hs'. destruct Hs' as [Hs' _].
      destruct (xs_ret s) eqn:Er; [eauto|]. exfalso. eapply Hret; eauto.
  Qed.

  (* every instance is a template without parameters under its own name; it has all its xtor instances, each with
     the template's signature; every xtor instance belongs to an instance; instance keys are pairwise different *)
  Record minv (st : symtab) : Prop := {
    mi_types : forall n pol targs xs, aget (st_types st) n = Some (pol, targs, xs) ->
                 targs = [] /\ aget (st_type_templates st) n = Some (pol, [], xs);
    mi_ctors_of : forall n xs x, aget (st_types st) n = Some (FData, [], xs) -> In x xs ->
                 exists sg, aget (st_ctors st) x = Some sg /\ aget (st_ctor_templates st) x = Some sg;
    mi_dtors_of : forall n xs x, aget (st_types st) n = Some (FCodata, [], xs) -> In x xs ->
                 exists sg, aget (st_dtors st) x = Some sg /\ aget (st_dtor_templates st) x = Some sg;
    mi_ctors : forall x sg, aget (st_ctors st) x = Some sg ->
                 aget (st_ctor_templates st) x = Some sg
                 /\ exists n xs, aget (st_types st) n = Some (FData, [], xs) /\ In x xs;
    mi_dtors : forall x sg, aget (st_dtors st) x = Some sg ->
                 aget (st_dtor_templates st) x = Some sg
                 /\ exists n xs, aget (st_types st) n = Some (FCodata, [], xs) /\ In x xs;
    mi_nodup : NoDup (map fst (st_types st))
  }.

  Lemma minv_start : forall st, st_types st = [] -> st_ctors st = [] -> st_dtors st = [] -> minv st.
  Proof.
    intros st Ht Hc Hd. constructor; intros; rewrite ?Ht, ?Hc, ?Hd in *; simpl in *; try discriminate. constructor.
  Qed.

  Definition has_inst (st : symtab) (t : fty) : Prop :=
    match t with FI64 => True | FDecl n _ => ahas (st_types st) n = true end.

  Lemma create_instance_mono : forall st n pol xs,
    tables ts fs st -> minv st ->
    aget (st_types st) n = None -> aget (st_type_templates st) n = Some (pol, [], xs) ->
    exists st', create_instance_tail n [] pol [] xs st = COk st'
      /\ minv st' /\ same_templates st st' /\ grows st st' /\ ahas (st_types st') n = true.
  Proof.
    intros st n pol xs T I Hn Ht.
    pose proof (template_xtors_present st n pol [] xs T Ht) as Hx.
    unfold create_instance_tail. change (mk_mappings [] []) with (@nil (fname * fty)). rewrite print_targs_nil.
    destruct pol.
    - destruct (insert_ctor_instances_mono xs st Hx) as [st1 [Hr [Hs [Hty [Hd Hk]]]]].
      rewrite Hr. simpl. eexists. split; [reflexivity|].
      destruct Hs as [E1 [E2 [E3 E4]]].
      split; [|split; [repeat split; simpl; assumption|split]].
      + constructor; simpl; intros.
        * rewrite Hty, aget_ainsert in H. rewrite E1.
          destruct (String.eqb n n0) eqn:E.
          -- apply String.eqb_eq in E. subst. inversion H; subst. auto.
          -- eapply (mi_types _ I); eassumption.
        * rewrite Hty, aget_ainsert in H. rewrite Hk, E2.
          destruct (String.eqb n n0) eqn:E.
          -- inversion H; subst. assert (Hm : mem x xs0 = true) by (apply mem_In; assumption). rewrite Hm.
             destruct (Hx x H0) as [sg Hsg]. eauto.
          -- destruct (mi_ctors_of _ I _ _ _ H H0) as [sg [Hc Hct]].
             destruct (mem x xs); eauto.
        * rewrite Hty, aget_ainsert in H. rewrite Hd, E3.
          destruct (String.eqb n n0) eqn:E; [discriminate|].
          eapply (mi_dtors_of _ I); eassumption.
        * rewrite Hk in H. rewrite E2, Hty.
          destruct (mem x xs) eqn:Em.
          -- split; [assumption|]. exists n, xs. rewrite aget_ainsert, String.eqb_refl.
             split; [reflexivity|apply mem_In; assumption].
          -- destruct (mi_ctors _ I _ _ H) as [Hc [n0 [xs0 [Hn0 Hin0]]]]. split; [assumption|].
             exists n0, xs0. rewrite aget_ainsert. destruct (String.eqb n n0) eqn:E; [|auto].
             apply String.eqb_eq in E. subst. congruence.
        * rewrite Hd in H. rewrite E3, Hty.
          destruct (mi_dtors _ I _ _ H) as [Hc [n0 [xs0 [Hn0 Hin0]]]]. split; [assumption|].
          exists n0, xs0. rewrite aget_ainsert. destruct (String.eqb n n0) eqn:E; [|auto].
          apply String.eqb_eq in E. subst. congruence.
        * rewrite Hty, ainsert_fresh by assumption. rewrite map_app. simpl.
          apply NoDup_app_snoc; [apply (mi_nodup _ I)|]. apply aget_none_notin. assumption.
      + intros m Hm. simpl. unfold ahas in *. rewrite Hty, aget_ainsert.
        destruct (String.eqb n m); [reflexivity|assumption].
      + simpl. unfold ahas. rewrite aget_ainsert, String.eqb_refl. reflexivity.
    - destruct (insert_dtor_instances_mono xs st Hx) as [st1 [Hr [Hs [Hty [Hd Hk]]]]].
      rewrite Hr. simpl. eexists. split; [reflexivity|].
      destruct Hs as [E1 [E2 [E3 E4]]].
      split; [|split; [repeat split; simpl; assumption|split]].
      + constructor; simpl; intros.
        * rewrite Hty, aget_ainsert in H. rewrite E1.
          destruct (String.eqb n n0) eqn:E.
          -- apply String.eqb_eq in E. subst. inversion H; subst. auto.
          -- eapply (mi_types _ I); eassumption.
        * rewrite Hty, aget_ainsert in H. rewrite Hd, E2.
          destruct (String.eqb n n0) eqn:E; [discriminate|].
          eapply (mi_ctors_of _ I); eassumption.
        * rewrite Hty, aget_ainsert in H. rewrite Hk, E3.
          destruct (String.eqb n n0) eqn:E.
          -- inversion H; subst. assert (Hm : mem x xs0 = true) by (apply mem_In; assumption). rewrite Hm.
             destruct (Hx x H0) as [sg Hsg]. eauto.
          -- destruct (mi_dtors_of _ I _ _ _ H H0) as [sg [Hc Hct]].
             destruct (mem x xs); eauto.
        * rewrite Hd in H. rewrite E2, Hty.
          destruct (mi_ctors _ I _ _ H) as [Hc [n0 [xs0 [Hn0 Hin0]]]]. split; [assumption|].
          exists n0, xs0. rewrite aget_ainsert. destruct (String.eqb n n0) eqn:E; [|auto].
          apply String.eqb_eq in E. subst. congruence.
        * rewrite Hk in H. rewrite E3, Hty.
          destruct (mem x xs) eqn:Em.
          -- split; [assumption|]. exists n, xs. rewrite aget_ainsert, String.eqb_refl.
             split; [reflexivity|apply mem_In; assumption].
          -- destruct (mi_dtors _ I _ _ H) as [Hc [n0 [xs0 [Hn0 Hin0]]]]. split; [assumption|].
             exists n0, xs0. rewrite aget_ainsert. destruct (String.eqb n n0) eqn:E; [|auto].
             apply String.eqb_eq in E. subst. congruence.
        * rewrite Hty, ainsert_fresh by assumption. rewrite map_app. simpl.
          apply NoDup_app_snoc; [apply (mi_nodup _ I)|]. apply aget_none_notin. assumption.
      + intros m Hm. simpl. unfold ahas in *. rewrite Hty, aget_ainsert.
        destruct (String.eqb n m); [reflexivity|assumption].
      + simpl. unfold ahas. rewrite aget_ainsert, String.eqb_refl. reflexivity.
  Qed.

  Lemma find_type_tt : forall st n pol ps xs, tables ts fs st ->
    aget (st_type_templates st) n = Some (pol, ps, xs) ->
    exists td, find_type ts n = Some td /\ td_pol td = pol /\ td_params td = ps /\ map xs_name (td_xtors td) = xs.
  Proof.
    intros st n pol ps xs T H. rewrite (t_tt _ _ _ T) in H.
    destruct (find_type ts n) as [td|]; [|discriminate]. simpl in H. unfold tt_val in H. inversion H; subst. eauto.
  Qed.
  Lemma find_type_tt_none : forall st n, tables ts fs st -> aget (st_type_templates st) n = None -> find_type ts n = None.
  Proof. intros st n T H. rewrite (t_tt _ _ _ T) in H. destruct (find_type ts n); [discriminate|reflexivity]. Qed.

  Lemma ty_check_mono : forall t st, mono_ty t = true -> tables ts fs st -> minv st ->
    (exists st', ty_check t st = COk st' /\ wf_ty ts t = true /\ minv st' /\ same_templates st st'
                 /\ grows st st' /\ has_inst st' t)
    \/ (exists e, ty_check t st = CErr e /\ wf_ty ts t = false).
  Proof.
    intros t st Hm T I. destruct t as [|n args].
    - left. exists st. simpl. splits; auto using grows_refl, same_templates_refl.
    - apply mono_ty_decl in Hm. subst args. simpl. rewrite !sapp_nil_r.
      destruct (aget (st_types st) n) as [[[pol targs] xs]|] eqn:En.
      + left. exists st. destruct (mi_types _ I _ _ _ _ En) as [-> Ht].
        destruct (find_type_tt _ _ _ _ _ T Ht) as [td [Hf [Hp [Hps Hxs]]]].
        rewrite Hf, Hps. simpl.
        splits; auto using grows_refl, same_templates_refl. unfold ahas. rewrite En. reflexivity.
      + destruct (aget (st_type_templates st) n) as [[[pol ps] xs]|] eqn:Et.
        * destruct (find_type_tt _ _ _ _ _ T Et) as [td [Hf [Hp [Hps Hxs]]]]. rewrite Hf, Hps.
          destruct ps as [|p0 pr].
          -- simpl. destruct (create_instance_mono st n pol xs T I En Et) as [st' [Hc [I' [S [G Hh]]]]].
             left. exists st'. splits; try assumption; reflexivity.
          -- right. simpl. eauto.
        * right. rewrite (find_type_tt_none _ _ T Et). eauto.
  Qed.

  Lemma ty_check_mono_ok : forall t st, mono_ty t = true -> tables ts fs st -> minv st -> wf_ty ts t = true ->
    exists st', ty_check t st = COk st' /\ minv st' /\ same_templates st st' /\ grows st st' /\ has_inst st' t.
  Proof.
    intros t st Hm T I Hw. destruct (ty_check_mono t st Hm T I) as [[st' [H1 [H2 [H3 [H4 [H5 H6]]]]]]|[e [H1 H2]]].
    - eauto 10.
    - congruence.
  Qed.
  Lemma ty_check_mono_sound : forall t st st', mono_ty t = true -> tables ts fs st -> minv st ->
    ty_check t st = COk st' ->
    wf_ty ts t = true /\ minv st' /\ same_templates st st' /\ grows st st' /\ has_inst st' t.
  Proof.
    intros t st st' Hm T I H. destruct (ty_check_mono t st Hm T I) as [[st2 [H1 [H2 [H3 [H4 [H5 H6]]]]]]|[e [H1 H2]]].
    - rewrite H in H1. inversion H1; subst. auto.
    - congruence.
  Qed.

  Lemma check_equality_mono_sound : forall a b st st', mono_ty a = true -> mono_ty b = true ->
    tables ts fs st -> minv st -> check_equality st a b = COk st' ->
    a = b /\ wf_ty ts a = true /\ minv st' /\ same_templates st st' /\ grows st st' /\ has_inst st' a.
  Proof.
    intros a b st st' Ha Hb T I H. unfold check_equality in H. inv_ok.
    match goal with H1 : ty_check a st = COk ?s1, H2 : ty_check b ?s1 = COk _ |- _ =>
      destruct (ty_check_mono_sound _ _ _ Ha T I H1) as [Hw [I1 [S1 [G1 Hi1]]]];
      destruct (ty_check_mono_sound _ _ _ Hb (tables_same _ _ _ _ T S1) I1 H2) as [Hw2 [I2 [S2 [G2 Hi2]]]]
    end.
    assert (a = b) by (apply fty_eqb_eq; assumption). subst b.
    splits; frame.
  Qed.
  Lemma check_equality_mono_ok : forall a st, mono_ty a = true -> tables ts fs st -> minv st -> wf_ty ts a = true ->
    exists st', check_equality st a a = COk st' /\ minv st' /\ same_templates st st' /\ grows st st' /\ has_inst st' a.
  Proof.
    intros a st Ha T I Hw. unfold check_equality.
    destruct (ty_check_mono_ok a st Ha T I Hw) as [s1 [H1 [I1 [S1 [G1 Hi1]]]]]. rewrite H1. simpl.
    destruct (ty_check_mono_ok a s1 Ha (tables_same _ _ _ _ T S1) I1 Hw) as [s2 [H2 [I2 [S2 [G2 Hi2]]]]]. rewrite H2. simpl.
    rewrite fty_eqb_refl. exists s2. splits; frame.
  Qed.
End Mono.
