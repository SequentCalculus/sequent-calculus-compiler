(* Proof/CoreTyFv.v (C12) - well-typed Core terms and core_lang's TypedFreeVars ([tfv_*] of
   Model/Fun2Core.v, the set fun2core uses for the parameter list of a shared continuation):
     fv_lookup_term/_stmt   in a term typed in G every typed free variable (name, chirality, type) IS the binding
                 G gives to its name (so the set holds each free name once, with its binder's type);
     ctx_agree_term/_stmt   typing only depends on the bindings of the typed free variables: a term typed in G is
                 typed in every G' that gives its typed free variables the same bindings.
   Together: a statement typed in G is typed in the context made of its typed free variables - the
   key fact behind the typing of `share_<f>_<n>` definitions. *)
From Coq Require Import List ZArith NArith String Bool Lia.
From SCC Require Import Base.Sexp Lang.SynUtil Lang.CoreSyn Sem.FsCheck Sem.CoreCheck Proof.CoreInd.
From SCC Require Import Lang.FunSyn Lang.FunTy Model.Fun2Core Proof.Fun2CoreTfv Proof.CoreTyRules.
Import ListNotations.
Open Scope list_scope.

Definition fv_of_arg (a : carg) : bset := match a with CProducer p => fvt p | CConsumer k => fvt k end.
Definition fv_of_clause (cl : cclause) (b : cbinding) : Prop :=
  match cl with CClause _ _ ctx body => In b (fvs body) /\ ~ In b ctx end.

Lemma flip_opp : forall c, flip_chi c = opp c.
Proof. intros [|]; reflexivity. Qed.

Lemma fva_in : forall b args, In b (fva args) <-> exists a, In a args /\ In b (fv_of_arg a).
Proof.
  intros b. induction args as [|a r IH].
  - split; [intros H; apply fva_nil in H; contradiction | intros [a [[] _]]].
  - rewrite fva_cons, IH. fold (fv_of_arg a). split.
    + intros [H|[a' [H1 H2]]]; [exists a; split; [left; reflexivity | exact H] | exists a'; split; [right; exact H1 | exact H2]].
    + intros [a' [[->|H1] H2]]; [left; exact H2 | right; exists a'; split; assumption].
Qed.
Lemma fvc_in : forall b cls, In b (fvc cls) <-> exists cl, In cl cls /\ fv_of_clause cl b.
Proof.
  intros b. induction cls as [|[c x ctx body] r IH].
  - split; [intros H; apply fvc_nil in H; contradiction | intros [a [[] _]]].
  - rewrite fvc_cons_iff, IH. split.
    + intros [H|[cl [H1 H2]]]; [exists (CClause c x ctx body); split; [left; reflexivity | exact H] | exists cl; split; [right; exact H1 | exact H2]].
    + intros [cl [[<-|H1] H2]]; [left; exact H2 | right; exists cl; split; assumption].
Qed.

Section Fv.
Variables (data codata : list ctydecl) (defs : list cdef).
Notation ct := (ccheck_term data codata defs).
Notation cs := (ccheck_stmt data codata defs).
Notation arg_typed := (arg_typed data codata defs).
Notation args_typed := (args_typed data codata defs).
Notation clause_typed := (clause_typed data codata defs).

(* [looks G P]: G gives every binding in P to its own name; [inb s]: membership in a binding set.  L1* and L2* are the
   statements of the two mutual inductions (term, argument, clause, statement). *)
Definition looks (G : cctx) (P : cbinding -> Prop) : Prop := forall b, P b -> clookup G (cbvar b) = Some b.
Definition inb (s : bset) : cbinding -> Prop := fun b => In b s.

Definition L1t (t : cterm) : Prop := forall G side ty, ct G side ty t = None -> looks G (inb (fvt t)).
Definition L1a (a : carg) : Prop := forall G s, arg_typed G a s -> looks G (inb (fv_of_arg a)).
Definition L1c (cl : cclause) : Prop := forall G, clause_typed G cl -> looks G (fv_of_clause cl).
Definition L1s (s : cstmt) : Prop := forall G, cs G s = None -> looks G (inb (fvs s)).

Lemma L1_args : forall args, Forall L1a args -> forall G sig, args_typed G args sig -> looks G (inb (fva args)).
Proof.
  intros args H G sig Ht b Hb. apply fva_in in Hb. destruct Hb as [a [Ha Hb]].
  revert sig Ht. induction H as [|a0 r Ha0 Hr IH]; intros sig Ht; [contradiction|].
  inversion Ht as [|? s ? sr Hs Hrs]; subst. destruct Ha as [->|Ha].
  - exact (Ha0 G s Hs b Hb).
  - exact (IH Ha sr Hrs).
Qed.
Lemma L1_clauses : forall cls, Forall L1c cls -> forall G, Forall (clause_typed G) cls -> looks G (inb (fvc cls)).
Proof.
  intros cls H G Ht b Hb. apply fvc_in in Hb. destruct Hb as [cl [Hcl Hb]].
  rewrite Forall_forall in H, Ht. exact (H cl Hcl G (Ht cl Hcl) b Hb).
Qed.

Lemma fv_lookup_all : (forall t, L1t t) /\ (forall a, L1a a) /\ (forall c, L1c c) /\ (forall s, L1s s).
Proof.
  apply core_mutind; unfold L1t, L1a, L1c, L1s, looks, inb.
  - intros c v t G side ty H b Hb. apply ct_var in H. destruct H as [-> [-> H]].
    apply fvt_var in Hb. subst b. exact H.
  - intros n G side ty _ b Hb. apply fvt_lit in Hb. contradiction.
  - intros a o b IHa IHb G side ty H bb Hb. apply ct_op in H. destruct H as [_ [_ [Ha Hb']]].
    apply fvt_op in Hb. destruct Hb as [Hb|Hb]; [eapply IHa | eapply IHb]; eauto.
  - intros c v s t IHs G side ty H b Hb. apply ct_mu in H. destruct H as [-> [-> H]].
    apply fvt_mu_iff in Hb. destruct Hb as [Hb Hne]. rewrite flip_opp in Hne.
    pose proof (IHs _ H b Hb) as Hl. rewrite clookup_cons in Hl. cbn [cbvar] in Hl.
    destruct (cident_eqb v (cbvar b)); [injection Hl as Hl; congruence | exact Hl].
  - intros c x args t F G side ty H b Hb. apply ct_xtor in H.
    destruct H as [_ [_ [n [d [sg [_ [_ [_ Ha]]]]]]]]. apply fvt_xtor in Hb.
    exact (L1_args args F G _ Ha b Hb).
  - intros c cls t F G side ty H b Hb. apply ct_xcase in H.
    destruct H as [_ [_ [n [d [_ [_ [_ Hc]]]]]]]. apply fvt_xcase in Hb.
    exact (L1_clauses cls F G Hc b Hb).
  - intros p IH G s H b Hb. unfold arg_typed in H. destruct (cbchi s); [|contradiction].
    eapply IH; eauto.
  - intros k IH G s H b Hb. unfold arg_typed in H. destruct (cbchi s); [contradiction|].
    eapply IH; eauto.
  - intros c x ctx body IH G H b [Hb Hn]. unfold clause_typed in H.
    pose proof (IH _ H b Hb) as Hl. rewrite clookup_app in Hl.
    destruct (clookup ctx (cbvar b)) as [b'|] eqn:E; [|exact Hl].
    injection Hl as Hl. subst b'. apply clookup_In in E. contradiction.
  - intros p t k IHp IHk G H b Hb. apply cs_cut in H. destruct H as [_ [Hp Hk]].
    apply fvs_cut in Hb. destruct Hb as [Hb|Hb]; [eapply IHp | eapply IHk]; eauto.
  - intros so a b t e IHa IHb IHt IHe G H bb Hb. apply cs_ifc in H. destruct H as [Ha [Hb' [Ht He]]].
    apply fvs_ifc in Hb. destruct Hb as [Hb|[Hb|[Hb|Hb]]].
    + eapply IHa; eauto.
    + destruct b as [b'|]; [|contradiction]. simpl in IHb. eapply IHb; eauto.
    + eapply IHt; eauto.
    + eapply IHe; eauto.
  - intros nl a next IHa IHn G H b Hb. apply cs_print in H. destruct H as [Ha Hn].
    apply fvs_print in Hb. destruct Hb as [Hb|Hb]; [eapply IHa | eapply IHn]; eauto.
  - intros f args t F G H b Hb. apply cs_call in H. destruct H as [_ [d [_ Ha]]].
    apply fvs_call in Hb. exact (L1_args args F G _ Ha b Hb).
  - intros a t IH G H b Hb. apply cs_exit in H. destruct H as [_ Ha]. apply fvs_exit in Hb.
    eapply IH; eauto.
Qed.
Definition fv_lookup_term := proj1 fv_lookup_all.
Definition fv_lookup_stmt := proj2 (proj2 (proj2 fv_lookup_all)).

Definition L2t (t : cterm) : Prop := forall G G' side ty, ct G side ty t = None -> looks G' (inb (fvt t)) -> ct G' side ty t = None.
Definition L2a (a : carg) : Prop := forall G G' s, arg_typed G a s -> looks G' (inb (fv_of_arg a)) -> arg_typed G' a s.
Definition L2c (cl : cclause) : Prop := forall G G', clause_typed G cl -> looks G' (fv_of_clause cl) -> clause_typed G' cl.
Definition L2s (s : cstmt) : Prop := forall G G', cs G s = None -> looks G' (inb (fvs s)) -> cs G' s = None.

Lemma L2_args : forall args, Forall L2a args -> forall G G' sig,
  args_typed G args sig -> looks G' (inb (fva args)) -> args_typed G' args sig.
Proof.
  intros args H G G'. induction H as [|a r Ha Hr IH]; intros sig Ht Hl.
  - inversion Ht; subst. constructor.
  - inversion Ht as [|? s ? sr Hs Hrs]; subst. constructor.
    + apply (Ha G G' s Hs). intros b Hb. apply Hl. unfold inb. apply fva_cons. left. exact Hb.
    + apply IH; [exact Hrs|]. intros b Hb. apply Hl. unfold inb. apply fva_cons. right. exact Hb.
Qed.
Lemma L2_clauses : forall cls, Forall L2c cls -> forall G G',
  Forall (clause_typed G) cls -> looks G' (inb (fvc cls)) -> Forall (clause_typed G') cls.
Proof.
  intros cls H G G' Ht Hl. rewrite Forall_forall in *. intros cl Hcl.
  apply (H cl Hcl G G' (Ht cl Hcl)). intros b Hb. apply Hl. unfold inb. apply fvc_in. exists cl. split; assumption.
Qed.

Lemma ctx_agree_all : (forall t, L2t t) /\ (forall a, L2a a) /\ (forall c, L2c c) /\ (forall s, L2s s).
Proof.
  apply core_mutind; unfold L2t, L2a, L2c, L2s, looks, inb.
  - intros c v t G G' side ty H Hl. apply ct_var in H. destruct H as [-> [-> H]].
    apply ct_var. repeat split; auto. apply (Hl (mkcb v side ty)). apply fvt_var. reflexivity.
  - intros n G G' side ty H _. apply ct_lit in H. apply ct_lit. exact H.
  - intros a o b IHa IHb G G' side ty H Hl. apply ct_op in H. destruct H as [H1 [H2 [Ha Hb]]].
    apply ct_op. repeat split; auto.
    + eapply IHa; eauto. intros bb Hbb. apply Hl. apply fvt_op. left. exact Hbb.
    + eapply IHb; eauto. intros bb Hbb. apply Hl. apply fvt_op. right. exact Hbb.
  - intros c v s t IHs G G' side ty H Hl. apply ct_mu in H. destruct H as [-> [-> H]].
    apply ct_mu. repeat split; auto. eapply IHs; [exact H|]. intros b Hb.
    pose proof (proj2 (proj2 (proj2 fv_lookup_all)) s _ H b Hb) as H1.
    rewrite clookup_cons in *. cbn [cbvar] in *.
    destruct (cident_eqb v (cbvar b)) eqn:E; [exact H1|].
    apply Hl. apply fvt_mu_iff. split; [exact Hb|]. intros ->. cbn [cbvar] in E. rewrite cident_eqb_refl in E. discriminate.
  - intros c x args t F G G' side ty H Hl. apply ct_xtor in H.
    destruct H as [H1 [H2 [n [d [sg [H3 [H4 [H5 Ha]]]]]]]]. apply ct_xtor. repeat split; auto.
    exists n, d, sg. repeat split; auto. eapply L2_args; eauto.
  - intros c cls t F G G' side ty H Hl. apply ct_xcase in H.
    destruct H as [H1 [H2 [n [d [H3 [H4 [H5 Hc]]]]]]]. apply ct_xcase. repeat split; auto.
    exists n, d. repeat split; auto. eapply L2_clauses; eauto.
  - intros p IH G G' s H Hl. unfold arg_typed in *. destruct (cbchi s); [|contradiction].
    eapply IH; eauto.
  - intros k IH G G' s H Hl. unfold arg_typed in *. destruct (cbchi s); [contradiction|].
    eapply IH; eauto.
  - intros c x ctx body IH G G' H Hl. unfold clause_typed in *. eapply IH; [exact H|].
    intros b Hb. pose proof (proj2 (proj2 (proj2 fv_lookup_all)) body _ H b Hb) as H1.
    rewrite clookup_app in *. destruct (clookup ctx (cbvar b)) as [b'|] eqn:E; [exact H1|].
    apply Hl. split; [exact Hb|]. intros Hin. apply clookup_none in E. apply E. apply in_map. exact Hin.
  - intros p t k IHp IHk G G' H Hl. apply cs_cut in H. destruct H as [H0 [Hp Hk]].
    apply cs_cut. repeat split; auto.
    + eapply IHp; eauto. intros b Hb. apply Hl. apply fvs_cut. left. exact Hb.
    + eapply IHk; eauto. intros b Hb. apply Hl. apply fvs_cut. right. exact Hb.
  - intros so a b t e IHa IHb IHt IHe G G' H Hl. apply cs_ifc in H. destruct H as [Ha [Hb' [Ht He]]].
    apply cs_ifc. repeat split.
    + eapply IHa; eauto. intros bb Hbb. apply Hl. apply fvs_ifc. left. exact Hbb.
    + destruct b as [b'|]; [|exact I]. simpl in IHb. eapply IHb; eauto.
      intros bb Hbb. apply Hl. apply fvs_ifc. right. left. exact Hbb.
    + eapply IHt; eauto. intros bb Hbb. apply Hl. apply fvs_ifc. right. right. left. exact Hbb.
    + eapply IHe; eauto. intros bb Hbb. apply Hl. apply fvs_ifc. right. right. right. exact Hbb.
  - intros nl a next IHa IHn G G' H Hl. apply cs_print in H. destruct H as [Ha Hn].
    apply cs_print. split.
    + eapply IHa; eauto. intros b Hb. apply Hl. apply fvs_print. left. exact Hb.
    + eapply IHn; eauto. intros b Hb. apply Hl. apply fvs_print. right. exact Hb.
  - intros f args t F G G' H Hl. apply cs_call in H. destruct H as [H0 [d [Hd Ha]]].
    apply cs_call. split; [exact H0|]. exists d. split; [exact Hd|]. eapply L2_args; eauto.
  - intros a t IH G G' H Hl. apply cs_exit in H. destruct H as [H0 Ha]. apply cs_exit.
    split; [exact H0|]. eapply IH; eauto.
Qed.
Definition ctx_agree_term := proj1 ctx_agree_all.
Definition ctx_agree_stmt := proj2 (proj2 (proj2 ctx_agree_all)).

Lemma fvs_names_nodup : forall G s, cs G s = None -> NoDup (cvars (fvs s)).
Proof.
  intros G s H. pose proof (fv_lookup_stmt s G H) as Hl. unfold looks, inb in Hl.
  pose proof (fvs_sorted s) as Hs. unfold bsorted in Hs.
  assert (Hnd : NoDup (fvs s)).
  { revert Hs. generalize (fvs s). intros l Hs. induction Hs as [|x r Hr IH Hall]; constructor; [|exact IH].
    intros Hin. rewrite Forall_forall in Hall. exact (blt_irrefl _ (Hall _ Hin)). }
  revert Hl Hnd. generalize (fvs s). intros l. induction l as [|x r IH]; intros Hl Hnd; simpl; constructor.
  - intros Hin. apply in_map_iff in Hin. destruct Hin as [y [Ey Hy]].
    inversion Hnd as [|? ? Hn _]; subst. apply Hn.
    assert (E : Some y = Some x) by (rewrite <- (Hl y (or_intror Hy)), <- (Hl x (or_introl eq_refl)), Ey; reflexivity).
    injection E as E. subst y. exact Hy.
  - inversion Hnd; subst. apply IH; [|assumption]. intros b Hb. apply Hl. right. exact Hb.
Qed.

(* a typed statement is typed in the context of its typed free variables *)
Theorem typed_in_own_fvs : forall G s, cs G s = None -> cs (fvs s) s = None.
Proof.
  intros G s H. apply (ctx_agree_stmt s G (fvs s) H). intros b Hb.
  apply clookup_nodup; [eapply fvs_names_nodup; exact H | exact Hb].
Qed.

End Fv.
