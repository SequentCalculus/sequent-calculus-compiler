(* C15 -> C12, program level: the output of [check] satisfies [prog_tyguard_src] / [prog_tyguard]
   (Model/Fun2CoreTyGuard.v, Proof/Fun2CoreTyChecked.v).  The final world of Proof/CheckTyGuard.v is instantiated with
   the symbol table at the end of the run and the compiled declarations of the output. *)
From Coq Require Import List ZArith NArith String Bool Permutation Lia.
From SCC Require Import Base.Sexp Lang.SynUtil Lang.FunSyn Lang.FunTy Lang.CoreSyn Model.Check Sem.FunTyping Sem.FunNames
  Sem.FunClosed Sem.AxSem Sem.FunSem Sem.FsCheck Sem.CoreCheck Model.Fun2Core Model.Fun2CoreGuard Model.Fun2CoreTyGuard
  Proof.FunInd Proof.FunEq Proof.CheckAnn Proof.TypingReject Proof.CheckBuild Proof.CheckMono Proof.CheckMonoSound
  Proof.CheckMonoProg Proof.PrintInj Proof.CheckPoly Proof.CheckInstBase Proof.CheckPolySound Proof.CheckPolyProg Proof.CheckInst
  Proof.Fun2CoreInv Proof.Fun2CoreTyBase Proof.CheckFixed Proof.Fun2CoreTyChecked Proof.CheckTyGuard.
Import ListNotations.
Open Scope string_scope.
Open Scope list_scope.

(* find_decl in a list of compiled declarations, data or codata: [f] compiles, [key] is the source name *)
Section FindDecl.
  Context {X : Type} (f : X -> ctydecl) (key : X -> fname).
  Hypothesis Hkey : forall x, ctname (f x) = new_id (key x).

  Lemma find_decl_in : forall k l, In k (map key l) -> exists d, find_decl (map f l) (new_id k) = Some d.
  Proof.
    intros k l. induction l as [|x r IH]; intros H; simpl in *; [contradiction|].
    unfold find_decl. simpl. rewrite Hkey, cid_eqb_new_id. destruct (String.eqb (key x) k) eqn:E; [eauto|].
    destruct H as [H|H]; [subst; rewrite String.eqb_refl in E; discriminate|]. apply IH. exact H.
  Qed.
  Lemma find_decl_name : forall k l d, find_decl (map f l) (new_id k) = Some d -> In k (map key l).
  Proof.
    intros k l d. induction l as [|x r IH]; unfold find_decl; simpl; intros H; [discriminate|].
    rewrite Hkey, cid_eqb_new_id in H.
    destruct (String.eqb (key x) k) eqn:E; [left; apply String.eqb_eq; exact E|right; apply IH; exact H].
  Qed.
  Lemma find_decl_nodup : forall l d, NoDup (map key l) -> In d l -> find_decl (map f l) (new_id (key d)) = Some (f d).
  Proof.
    induction l as [|x r IH]; intros d Hn Hin; [destruct Hin|]. unfold find_decl. simpl. rewrite Hkey, cid_eqb_new_id.
    inversion Hn as [|? ? Hx Hr]; subst. destruct Hin as [->|Hin]; [rewrite String.eqb_refl; reflexivity|].
    destruct (String.eqb (key x) (key d)) eqn:E.
    - apply String.eqb_eq in E. exfalso. apply Hx. rewrite E. apply in_map. exact Hin.
    - apply IH; assumption.
  Qed.
End FindDecl.

Lemma declared_tyd : forall q t, ty_declared (decl_names q) t = true -> tyd (cdata_of q) (ccodata_of q) (compile_ty t) = true.
Proof.
  intros q [|n a] H; [reflexivity|]. simpl in H. apply smem_In in H. rewrite <- print_ty_decl in H.
  unfold tyd, ty_ok. unfold compile_ty. rewrite show_fty_print.
  unfold decl_names in H. apply in_app_or in H. destruct H as [H|H].
  - destruct (find_decl_in compile_data fdaname (fun _ => eq_refl) _ _ H) as [d Hd]. unfold cdata_of. rewrite Hd. reflexivity.
  - destruct (find_decl_in compile_codata fcoaname (fun _ => eq_refl) _ _ H) as [d Hd]. unfold ccodata_of. rewrite Hd.
    destruct (find_decl (cdata_of q) _); reflexivity.
Qed.

Lemma nodup_by_new_id : forall l, NoDup l -> nodup_by cident_eqb (map new_id l) = true.
Proof.
  induction l as [|x r IH]; intros H; simpl; [reflexivity|]. inversion H as [|? ? Hx Hr]; subst.
  rewrite (IH Hr), andb_true_r. apply negb_true_iff. apply not_true_iff_false. intros E.
  apply existsb_exists in E. destruct E as [y [Hy E]]. apply in_map_iff in Hy. destruct Hy as [z [<- Hz]].
  rewrite cid_eqb_new_id in E. apply String.eqb_eq in E. subst. contradiction.
Qed.
Lemma nodup_flat_map_in : forall {X} (f : X -> list fname) l x, nodup (flat_map f l) = true -> In x l -> nodup (f x) = true.
Proof.
  intros X f l x. induction l as [|y r IH]; intros H Hin; simpl in *; [contradiction|].
  destruct Hin as [->|Hin]; [eapply nodup_app_l; eassumption|]. apply IH; [eapply nodup_app_r; eassumption|assumption].
Qed.

Section DefsTg.
  Variable ts : list tdecl.
  Variable fs : list fdef.
  Hypothesis W : poly_world ts fs.
  Variable q : fcprog.
  Variables D C : list ctydecl.
  Variable stF : symtab.
  Hypothesis HtyF : forall t, ty_names_ok t = true -> has_inst_p stF t -> tyd D C (compile_ty t) = true.
  Hypothesis HdefF : forall f d, FunTyping.find_def fs f = Some d ->
    exists d', ffind_def q f = Some d' /\ fdctx d' = fdctx d /\ fdret d' = fdret d.
  Hypothesis HdataF : forall td targs, In td ts -> td_pol td = FData -> targs_ok ts td targs ->
    has_inst_p stF (FDecl (td_name td) targs) ->
    exists cs, find_decl D (new_id (td_name td ++ print_targs targs))
               = Some (mkct CData (new_id (td_name td ++ print_targs targs)) (map compile_ctor cs))
      /\ Forall2 (Rdata stF td targs) (td_xtors td) cs.
  Hypothesis HcodataF : forall td targs, In td ts -> td_pol td = FCodata -> targs_ok ts td targs ->
    has_inst_p stF (FDecl (td_name td) targs) ->
    exists ds, find_decl C (new_id (td_name td ++ print_targs targs))
               = Some (mkct CCodata (new_id (td_name td ++ print_targs targs)) (map compile_dtor ds))
      /\ Forall2 (Rcodata stF td targs) (td_xtors td) ds.

  Lemma def_check_gen_ptg : forall eager d st d' st',
    ctx_names_ok (fdctx d) = true -> ty_names_ok (fdret d) = true -> term_names_ok (fdbody d) = true ->
    tables ts fs st -> pinv ts st -> def_check_gen eager d st = COk (d', st') ->
    grows st' stF ->
    (calls_main (fdbody d') = true -> calls_main_prog q = true) ->
    def_tyguard_src q D C d' = true.
  Proof.
    intros eager d st d' st' Hmc Hmr Hmb Tb I H GF Hcm. apply run_def in H.
    destruct H as (st1 & st2a & st2 & body' & Hnd & H1 & H2 & H2m & H3 & ->). simpl in Hcm.
    apply ctx_no_dups_go_ok in Hnd. destruct Hnd as [Hnd _].
    destruct (ctx_check_psound ts fs W _ _ _ Hmc Tb I H1) as [_ [I1 [S1 [G1 C1]]]].
    destruct (ty_check_sound ts fs W _ _ _ Hmr (tables_same _ _ _ _ Tb S1) I1 H2) as [_ [I2a [S2a [G2a Hi2]]]].
    assert (S02a : same_templates st st2a) by frame.
    destruct (main_ret_check_psound ts fs W d st2a st2 Hmr (tables_same _ _ _ _ Tb S02a) I2a H2m) as [_ [I2 [S2 G2m]]].
    assert (S02 : same_templates st st2) by frame.
    destruct (check_term_gen_psound ts fs W (fdbody d) eager st2 (fdctx d) (fdret d) body' st' Hmb Hmc Hmr (tables_same _ _ _ _ Tb S02) I2 H3)
      as [_ [I3 [S3 [G3 _]]]].
    assert (G1F : grows st1 stF) by frame.
    assert (HiR : has_inst_p stF (fdret d)) by (eapply has_inst_grows; [|exact Hi2]; frame).
    assert (CI : ctx_inst stF (fdctx d)).
    { intros b Hb. eapply has_inst_grows; [exact G1F|]. apply declared_has_inst.
      unfold ctx_declared in C1. rewrite forallb_forall in C1. auto. }
    destruct (check_term_gen_ptg ts fs W q D C stF HtyF HdefF HdataF HcodataF (fdbody d) eager st2 (fdctx d) (fdret d) body' st' (compile_ctx (fdctx d))
                Hmb Hmc Hmr (tables_same _ _ _ _ Tb S02) I2 H3 GF HiR (ctx_rel_init _ Hnd) CI Hcm) as [K1 [K2 _]].
    unfold def_tyguard_src. simpl. rewrite nodup_str_eq. unfold fvars. rewrite Hnd, K1, (has_ty_of _ _ K2), (HtyF _ Hmr HiR).
    rewrite !andb_true_r. unfold ctx_tyd, compile_ctx. apply forallb_forall. intros cb Hcb. apply in_map_iff in Hcb. destruct Hcb as [b [<- Hb]]. simpl.
    apply HtyF; [eapply ctx_names_ok_in; eassumption|apply CI; exact Hb].
  Qed.

  Lemma check_defs_gen_ptg : forall eager ds st ds' st',
    (forall d, In d ds -> ctx_names_ok (fdctx d) = true /\ ty_names_ok (fdret d) = true /\ term_names_ok (fdbody d) = true) ->
    tables ts fs st -> pinv ts st -> check_defs_gen eager ds st = COk (ds', st') ->
    grows st' stF ->
    (forall d', In d' ds' -> calls_main (fdbody d') = true -> calls_main_prog q = true) ->
    forallb (def_tyguard_src q D C) ds' = true.
  Proof.
    intros eager ds. induction ds as [|d r IH]; intros st ds' st' Hm Tb I H GF Hcm.
    - simpl in H. inversion H; subst. reflexivity.
    - apply run_defs_cons in H. destruct H as (d' & st1 & r' & H1 & H2 & ->).
      destruct (Hm d (or_introl eq_refl)) as [Hc [Hr Hb]].
      destruct (def_check_gen_psound ts fs W eager d st d' st1 Hc Hr Hb Tb I H1) as [_ [I1 [S1 [G1 _]]]].
      destruct (check_defs_gen_psound ts fs W eager r st1 r' st' (fun d0 Hd0 => Hm d0 (or_intror Hd0)) (tables_same _ _ _ _ Tb S1) I1 H2)
        as [_ [I2 [S2 [G2 _]]]].
      simpl. rewrite (def_check_gen_ptg eager d st d' st1 Hc Hr Hb Tb I H1 (grows_trans _ _ _ G2 GF) (Hcm d' (or_introl eq_refl))).
      simpl. apply (IH st1 r' st' (fun d0 Hd0 => Hm d0 (or_intror Hd0)) (tables_same _ _ _ _ Tb S1) I1 H2 GF).
      intros d0 Hd0. apply Hcm. right. exact Hd0.
  Qed.
End DefsTg.

(* the definitions of the output carry the names and signatures of the source definitions, in order *)
Lemma check_defs_gen_sigs : forall eager ds st ds' st', check_defs_gen eager ds st = COk (ds', st') ->
  map fdname ds' = map fdname ds
  /\ forall f d, FunTyping.find_def ds f = Some d ->
       exists d', find (fun d => String.eqb (fdname d) f) ds' = Some d' /\ fdctx d' = fdctx d /\ fdret d' = fdret d.
Proof.
  intros eager ds. induction ds as [|d r IH]; intros st ds' st' H.
  - simpl in H. inversion H; subst. split; [reflexivity|]. intros f d Hd. discriminate.
  - apply run_defs_cons in H. destruct H as (d' & st1 & r' & H1 & H2 & ->).
    destruct (IH _ _ _ H2) as [En Hf].
    assert (Hd' : fdname d' = fdname d /\ fdctx d' = fdctx d /\ fdret d' = fdret d).
    { apply run_def in H1. destruct H1 as (? & ? & ? & ? & _ & _ & _ & _ & _ & ->). simpl. auto. }
    destruct Hd' as [E1 [E2 E3]]. split; [simpl; rewrite E1, En; reflexivity|].
    intros f d0 Hd0. unfold FunTyping.find_def in Hd0. simpl in *. rewrite E1.
    destruct (String.eqb (fdname d) f); [inversion Hd0; subst; eauto|]. apply Hf. exact Hd0.
Qed.

(* no declared type is named like the continuation type of the Core checker *)
Definition no_cont_decl (p : fprog) : bool :=
  forallb (fun td => negb (String.eqb (td_name td) "_Cont")) (tdecls (fpdecls p)).

Lemma Forall2_names : forall {Y} (g : Y -> fname) (P : fname -> Y -> Prop) xs cs,
  Forall2 (fun x c => g c = x /\ P x c) xs cs -> map g cs = xs.
Proof. intros Y g P xs cs H. induction H as [|x c l l' [E _] _ IH]; simpl; [reflexivity|]. rewrite E, IH. reflexivity. Qed.
Lemma Forall2_map_eq : forall {X Y Z} (f : X -> Z) (g : Y -> Z) l1 l2,
  Forall2 (fun x y => g y = f x) l1 l2 -> map g l2 = map f l1.
Proof. intros X Y Z f g l1 l2 H. induction H; simpl; [reflexivity|]. rewrite H, IHForall2. reflexivity. Qed.

Lemma check_gen_decls_tyguard : forall eager p q,
  prog_names_ok p = true -> no_cont_decl p = true -> check_gen eager p = COk q -> decls_tyguard q = true.
Proof.
  intros eager p q Hm Hnc H.
  destruct (check_gen_run eager p q Hm H) as (st & st1 & das & cos & R).
  pose proof (pr_world R) as W. pose proof (pr_defs R) as Hdefs. pose proof (pr_inv R) as I1.
  pose proof (pr_collect R) as Hcol. pose proof (pr_out R) as Hq.
  pose proof (check_instance_names_distinct eager p q Hm H) as Hnd.
  pose proof (decl_names_perm st1 das cos (fcpdefs q) Hcol) as Hp. rewrite <- Hq in Hp.
  assert (Hnames : map ctname (cdata_of q ++ ccodata_of q) = map new_id (decl_names q)).
  { unfold cdata_of, ccodata_of, decl_names. rewrite !map_app, !map_map. reflexivity. }
  assert (Hkey : forall k, In k (decl_names q) -> exists pol targs xs td,
             aget (st_types st1) k = Some (pol, targs, xs) /\ In td (tdecls (fpdecls p))
             /\ k = (td_name td ++ print_targs targs)%string /\ td_pol td = pol /\ xs = map xs_name (td_xtors td)
             /\ targs_ok (tdecls (fpdecls p)) td targs).
  { intros k Hk. assert (Hk1 : In k (ikeys st1)) by (eapply Permutation_in; eassumption).
    unfold ikeys in Hk1. apply in_map_iff in Hk1. destruct Hk1 as [[k' [[pol targs] xs]] [Ek Hin]]. simpl in Ek. subst k'.
    pose proof (In_aget _ _ _ (pi_nodup _ _ I1) Hin) as Hg.
    destruct (pi_types _ _ I1 _ _ _ _ Hg) as [td [Htd [Ekey [Hpol [Hxs Hok]]]]].
    exists pol, targs, xs, td. splits; auto. }
  unfold decls_tyguard. cbv zeta. rewrite Hnames, (nodup_by_new_id _ Hnd). simpl.
  assert (Hc : existsb (fun t => cident_eqb (ctname t) cont_name_fs) (cdata_of q ++ ccodata_of q) = false).
  { apply not_true_iff_false. intros E. apply existsb_exists in E. destruct E as [t [Ht E]].
    assert (Hin : In (ctname t) (map new_id (decl_names q))) by (rewrite <- Hnames; apply in_map; exact Ht).
    apply in_map_iff in Hin. destruct Hin as [k [Ek Hk]]. rewrite <- Ek in E. unfold cont_name_fs in E.
    change ("_Cont", 0%N) with (new_id "_Cont") in E. rewrite cid_eqb_new_id in E. apply String.eqb_eq in E. subst k.
    destruct (Hkey _ Hk) as [pol [targs [xs [td [Hg [Htd [Ekey [Hpol [Hxs Hok]]]]]]]]].
    destruct (instance_name_inj "_Cont" [] (td_name td) targs eq_refl
                (name_ok_no_delim _ (PW_tnames _ _ W td Htd)) eq_refl (wf_tys_names_ok _ _ W _ (proj2 Hok))
                ltac:(rewrite <- Ekey; reflexivity)) as [En _].
    unfold no_cont_decl in Hnc. rewrite forallb_forall in Hnc. specialize (Hnc td Htd). rewrite <- En in Hnc. discriminate. }
  rewrite Hc. simpl.
  destruct (check_defs_gen_sigs _ _ _ _ _ Hdefs) as [En _].
  assert (Hdn : nodup_str (map fdname (fcpdefs q)) = true).
  { rewrite nodup_str_eq, En. pose proof (PW_names _ _ W) as N. unfold names_ok in N.
    apply andb_true_iff in N. tauto. }
  rewrite Hdn, andb_true_r.
  destruct (collect_types_spec _ _ _ _ Hcol) as [_ [Hda Hco]].
  pose proof (PW_names _ _ W) as N. unfold names_ok in N.
  apply andb_true_iff in N. destruct N as [N _]. apply andb_true_iff in N. destruct N as [N Nco].
  apply andb_true_iff in N. destruct N as [_ Nda].
  assert (Hx : forall pol, nodup (xtor_names pol (tdecls (fpdecls p))) = true ->
             forall name targs xs, In (name, (pol, targs, xs)) (st_types st1) -> NoDup xs).
  { intros pol Npol name targs xs Hin.
    pose proof (In_aget _ _ _ (pi_nodup _ _ I1) Hin) as Hg.
    destruct (pi_types _ _ I1 _ _ _ _ Hg) as [td [Htd [Ekey [Hpol [Hxs Hok]]]]].
    apply nodup_NoDup. pose proof (nodup_flat_map_in _ _ td Npol Htd) as Hn. simpl in Hn.
    rewrite Hpol, fpol_eqb_refl in Hn. rewrite Hxs. exact Hn. }
  rewrite forallb_app. apply andb_true_iff. split; apply forallb_forall; intros t Ht.
  - unfold cdata_of in Ht. apply in_map_iff in Ht. destruct Ht as [d [<- Hd]].
    rewrite Hq in Hd. simpl in Hd. apply (Permutation_in _ (sort_by_name_perm fdaname das)) in Hd.
    rewrite Forall_forall in Hda. destruct (Hda d Hd) as [[name [[pol targs] xs]] [He Hof]]. simpl in Hof.
    destruct Hof as [-> [_ [_ HF]]]. simpl. rewrite map_map. simpl.
    assert (Exs : map fctname (fdactors d) = xs).
    { eapply Forall2_names. exact HF. }
    rewrite <- (map_map fctname new_id), Exs. apply nodup_by_new_id. exact (Hx FData Nda name targs xs He).
  - unfold ccodata_of in Ht. apply in_map_iff in Ht. destruct Ht as [d [<- Hd]].
    rewrite Hq in Hd. simpl in Hd. apply (Permutation_in _ (sort_by_name_perm fcoaname cos)) in Hd.
    rewrite Forall_forall in Hco. destruct (Hco d Hd) as [[name [[pol targs] xs]] [He Hof]]. simpl in Hof.
    destruct Hof as [-> [_ [_ HF]]]. simpl. rewrite map_map. simpl.
    assert (Exs : map fdtname (fcodtors d) = xs).
    { eapply Forall2_names. exact HF. }
    rewrite <- (map_map fdtname new_id), Exs. apply nodup_by_new_id. exact (Hx FCodata Nco name targs xs He).
Qed.

Lemma final_world_types : forall q st1 das cos,
  collect_types st1 (st_types st1) = COk (das, cos) ->
  q = mkfcprog (sort_by_name fdaname das) (sort_by_name fcoaname cos) (fcpdefs q) ->
  forall t, ty_names_ok t = true -> has_inst_p st1 t -> tyd (cdata_of q) (ccodata_of q) (compile_ty t) = true.
Proof.
  intros q st1 das cos Hcol Hq t _ Hi. apply declared_tyd.
  eapply ty_declared_mono; [|apply has_inst_declared; exact Hi].
  apply perm_names_le. apply Permutation_sym. rewrite Hq. apply decl_names_perm. exact Hcol.
Qed.

Lemma tyd_declared : forall q t, tyd (cdata_of q) (ccodata_of q) (compile_ty t) = true -> ty_declared (decl_names q) t = true.
Proof.
  intros q [|n a] H; [reflexivity|]. simpl. apply smem_In. rewrite <- print_ty_decl.
  unfold tyd, ty_ok in H. unfold compile_ty in H. rewrite show_fty_print in H. unfold decl_names. apply in_or_app.
  destruct (find_decl (cdata_of q) _) eqn:E1.
  - left. eapply (find_decl_name compile_data fdaname (fun _ => eq_refl)). exact E1.
  - destruct (find_decl (ccodata_of q) _) eqn:E2; [|discriminate]. right. eapply (find_decl_name compile_codata fcoaname (fun _ => eq_refl)). exact E2.
Qed.
Lemma Forall2_map_l_in : forall {X Y Z} (f : X -> Y) (P : Y -> Z -> Prop) (Q : X -> Z -> Prop) l cs,
  Forall2 P (map f l) cs -> (forall x c, In x l -> In c cs -> P (f x) c -> Q x c) -> Forall2 Q l cs.
Proof.
  intros X Y Z f P Q l. induction l as [|x r IH]; intros cs H HPQ; simpl in H; inversion H; subst; constructor.
  - apply HPQ; [left; reflexivity|left; reflexivity|assumption].
  - apply IH; [assumption|]. intros x0 c Hin Hc. apply HPQ; right; assumption.
Qed.

Section World.
  Variable ts : list tdecl.
  Variable fs : list fdef.
  Hypothesis W : poly_world ts fs.
  Variable q : fcprog.
  Variable st1 : symtab.
  Variables (das : list fdata) (cos : list fcodata).
  Hypothesis I1 : pinv ts st1.
  Hypothesis Hcol : collect_types st1 (st_types st1) = COk (das, cos).
  Hypothesis Hq : q = mkfcprog (sort_by_name fdaname das) (sort_by_name fcoaname cos) (fcpdefs q).
  Hypothesis Hx : xtor_tys_guard q = true.

  Lemma world_perm : Permutation (decl_names q) (ikeys st1).
  Proof. rewrite Hq. apply decl_names_perm. exact Hcol. Qed.
  Lemma world_nodup : NoDup (decl_names q).
  Proof. eapply Permutation_NoDup; [apply Permutation_sym; apply world_perm|]. apply (pi_nodup _ _ I1). Qed.

  Lemma world_tyd_inst : forall t, tyd (cdata_of q) (ccodata_of q) (compile_ty t) = true -> has_inst_p st1 t.
  Proof.
    intros t H. apply declared_has_inst. eapply ty_declared_mono; [|apply tyd_declared; exact H].
    apply perm_names_le. apply world_perm.
  Qed.

  (* the entry of an instance in the final table *)
  Lemma world_entry : forall td targs, In td ts -> targs_ok ts td targs -> has_inst_p st1 (FDecl (td_name td) targs) ->
    In ((td_name td ++ print_targs targs)%string, (td_pol td, targs, map xs_name (td_xtors td))) (st_types st1).
  Proof.
    intros td targs Htd Hok Hi. simpl in Hi. apply ahas_true in Hi. destruct Hi as [[[pol targs'] xs] Hg].
    destruct (pi_types _ _ I1 _ _ _ _ Hg) as [td' [Htd' [Ekey [Hpol [Hxs Hok']]]]].
    destruct (instance_name_inj _ _ _ _ (name_ok_no_delim _ (PW_tnames _ _ W td Htd)) (name_ok_no_delim _ (PW_tnames _ _ W td' Htd'))
                (targs_ok_names ts fs W _ _ Hok) (targs_ok_names ts fs W _ _ Hok') Ekey) as [En <-].
    assert (td' = td).
    { pose proof (pw_find_type ts fs W td Htd) as F1. pose proof (pw_find_type ts fs W td' Htd') as F2.
      rewrite En in F1. rewrite F1 in F2. inversion F2. reflexivity. }
    subst td'. subst pol xs. apply aget_In. exact Hg.
  Qed.
  Lemma world_entry_unique : forall k v v', In (k, v) (st_types st1) -> In (k, v') (st_types st1) -> v = v'.
  Proof.
    intros k v v' H H'. pose proof (In_aget _ _ _ (pi_nodup _ _ I1) H) as G. pose proof (In_aget _ _ _ (pi_nodup _ _ I1) H') as G'.
    rewrite G in G'. inversion G'. reflexivity.
  Qed.

  Lemma world_data : forall td targs, In td ts -> td_pol td = FData -> targs_ok ts td targs ->
    has_inst_p st1 (FDecl (td_name td) targs) ->
    exists cs, find_decl (cdata_of q) (new_id (td_name td ++ print_targs targs))
               = Some (mkct CData (new_id (td_name td ++ print_targs targs)) (map compile_ctor cs))
      /\ Forall2 (Rdata st1 td targs) (td_xtors td) cs.
  Proof.
    intros td targs Htd Hp Hok Hi. pose proof (world_entry td targs Htd Hok Hi) as He. rewrite Hp in He.
    destruct (collect_types_spec _ _ _ _ Hcol) as [Hperm [Hda Hco]].
    set (key := (td_name td ++ print_targs targs)%string) in *.
    assert (Hk : In key (map fdaname das ++ map fcoaname cos)).
    { eapply Permutation_in; [apply Permutation_sym; exact Hperm|]. change key with (fst (key, (FData, targs, map xs_name (td_xtors td)))).
      apply in_map. exact He. }
    apply in_app_or in Hk. destruct Hk as [Hk|Hk].
    - apply in_map_iff in Hk. destruct Hk as [d [Ed Hd]].
      rewrite Forall_forall in Hda. destruct (Hda d Hd) as [[name [[pol targs'] xs]] [He' Hof]]. simpl in Hof.
      destruct Hof as [-> [En [_ HF]]]. rewrite Ed in En. subst name.
      pose proof (world_entry_unique _ _ _ He He') as Ev. inversion Ev; subst targs' xs. clear Ev.
      assert (Hdq : In d (fcpdata q)).
      { rewrite Hq. simpl. eapply Permutation_in; [apply Permutation_sym; apply sort_by_name_perm|exact Hd]. }
      exists (fdactors d). split.
      + pose proof (find_decl_nodup compile_data fdaname (fun _ => eq_refl) (fcpdata q) d (NoDup_app_l _ _ world_nodup) Hdq) as Hf.
        unfold cdata_of. rewrite Ed in Hf. rewrite Hf. unfold compile_data. rewrite Ed. reflexivity.
      + eapply Forall2_map_l_in; [exact HF|]. intros s c Hs Hc [En Hg]. simpl in En, Hg.
        pose proof (PW_xnames _ _ W td s Htd Hs) as Nx.
        destruct (ctor_instance_sound ts fs W _ _ _ _ I1 Nx (targs_ok_names ts fs W _ _ Hok) Hg) as [td' [s' [Htd' [Hp' [Hs' [Hn' [_ Ea]]]]]]].
        destruct (xtor_owner_unique ts fs W td td' s s' Htd Htd' ltac:(congruence) Hs Hs' ltac:(congruence)) as [<- <-].
        unfold Rdata. splits; auto.
        intros b Hb. apply world_tyd_inst.
        pose proof Hx as Hx'. unfold xtor_tys_guard in Hx'. cbv zeta in Hx'. rewrite forallb_forall in Hx'.
        assert (Hin : In (compile_data d) (cdata_of q ++ ccodata_of q)) by (apply in_or_app; left; unfold cdata_of; apply in_map; exact Hdq).
        specialize (Hx' _ Hin). rewrite forallb_forall in Hx'.
        assert (Hinc : In (compile_ctor c) (ctxtors (compile_data d))) by (unfold compile_data; simpl; apply in_map; exact Hc).
        specialize (Hx' _ Hinc). rewrite forallb_forall in Hx'.
        apply (Hx' (compile_binding b)). unfold compile_ctor. simpl. unfold compile_ctx. apply in_map. exact Hb.
    - exfalso. apply in_map_iff in Hk. destruct Hk as [d [Ed Hd]].
      rewrite Forall_forall in Hco. destruct (Hco d Hd) as [[name [[pol targs'] xs]] [He' Hof]]. simpl in Hof.
      destruct Hof as [-> [En _]]. rewrite Ed in En. subst name.
      pose proof (world_entry_unique _ _ _ He He') as Ev. inversion Ev.
  Qed.

  Lemma world_codata : forall td targs, In td ts -> td_pol td = FCodata -> targs_ok ts td targs ->
    has_inst_p st1 (FDecl (td_name td) targs) ->
    exists ds, find_decl (ccodata_of q) (new_id (td_name td ++ print_targs targs))
               = Some (mkct CCodata (new_id (td_name td ++ print_targs targs)) (map compile_dtor ds))
      /\ Forall2 (Rcodata st1 td targs) (td_xtors td) ds.
  Proof.
    intros td targs Htd Hp Hok Hi. pose proof (world_entry td targs Htd Hok Hi) as He. rewrite Hp in He.
    destruct (collect_types_spec _ _ _ _ Hcol) as [Hperm [Hda Hco]].
    set (key := (td_name td ++ print_targs targs)%string) in *.
    assert (Hk : In key (map fdaname das ++ map fcoaname cos)).
    { eapply Permutation_in; [apply Permutation_sym; exact Hperm|]. change key with (fst (key, (FCodata, targs, map xs_name (td_xtors td)))).
      apply in_map. exact He. }
    apply in_app_or in Hk. destruct Hk as [Hk|Hk].
    - exfalso. apply in_map_iff in Hk. destruct Hk as [d [Ed Hd]].
      rewrite Forall_forall in Hda. destruct (Hda d Hd) as [[name [[pol targs'] xs]] [He' Hof]]. simpl in Hof.
      destruct Hof as [-> [En _]]. rewrite Ed in En. subst name.
      pose proof (world_entry_unique _ _ _ He He') as Ev. inversion Ev.
    - apply in_map_iff in Hk. destruct Hk as [d [Ed Hd]].
      rewrite Forall_forall in Hco. destruct (Hco d Hd) as [[name [[pol targs'] xs]] [He' Hof]]. simpl in Hof.
      destruct Hof as [-> [En [_ HF]]]. rewrite Ed in En. subst name.
      pose proof (world_entry_unique _ _ _ He He') as Ev. inversion Ev; subst targs' xs. clear Ev.
      assert (Hdq : In d (fcpcodata q)).
      { rewrite Hq. simpl. eapply Permutation_in; [apply Permutation_sym; apply sort_by_name_perm|exact Hd]. }
      exists (fcodtors d). split.
      + pose proof (find_decl_nodup compile_codata fcoaname (fun _ => eq_refl) (fcpcodata q) d (NoDup_app_r _ _ world_nodup) Hdq) as Hf.
        unfold ccodata_of. rewrite Ed in Hf. rewrite Hf. unfold compile_codata. rewrite Ed. reflexivity.
      + eapply Forall2_map_l_in; [exact HF|]. intros s c Hs Hc [En Hg]. simpl in En, Hg.
        pose proof (PW_xnames _ _ W td s Htd Hs) as Nx.
        destruct (dtor_instance_sound ts fs W _ _ _ _ _ I1 Nx (targs_ok_names ts fs W _ _ Hok) Hg)
          as [td' [s' [r0 [Htd' [Hp' [Hs' [Hn' [_ [Hr [Ea Er]]]]]]]]]].
        destruct (xtor_owner_unique ts fs W td td' s s' Htd Htd' ltac:(congruence) Hs Hs' ltac:(congruence)) as [<- <-].
        pose proof Hx as Hx'. unfold xtor_tys_guard in Hx'. cbv zeta in Hx'. rewrite forallb_forall in Hx'.
        assert (Hin : In (compile_codata d) (cdata_of q ++ ccodata_of q)) by (apply in_or_app; right; unfold ccodata_of; apply in_map; exact Hdq).
        specialize (Hx' _ Hin). rewrite forallb_forall in Hx'.
        assert (Hinc : In (compile_dtor c) (ctxtors (compile_codata d))) by (unfold compile_codata; simpl; apply in_map; exact Hc).
        specialize (Hx' _ Hinc). rewrite forallb_forall in Hx'.
        unfold Rcodata. splits; eauto.
        * intros b Hb. apply world_tyd_inst.
          apply (Hx' (compile_binding b)). unfold compile_dtor. simpl. apply in_or_app. left. unfold compile_ctx. apply in_map. exact Hb.
        * apply world_tyd_inst.
          apply (Hx' (mkcb (new_id (fst (fresh_name (fvars (fdtargs c)) "a"))) CCns (compile_ty (fdtcont c)))).
          unfold compile_dtor. simpl. apply in_or_app. right. left. reflexivity.
  Qed.
End World.

Theorem check_gen_tyguard_src : forall eager p q,
  prog_names_ok p = true -> no_cont_decl p = true ->
  check_gen eager p = COk q -> xtor_tys_guard q = true -> prog_tyguard_src q = true.
Proof.
  intros eager p q Hm Hnc H Hx.
  destruct (check_gen_run eager p q Hm H) as (st & st1 & das & cos & R).
  pose proof (pr_world R) as W. pose proof (pr_tables R) as Tb. pose proof (pr_start R) as I0.
  pose proof (pr_defs R) as Hdefs. pose proof (pr_names R) as Hnm. pose proof (pr_inv R) as I1.
  pose proof (pr_collect R) as Hcol. pose proof (pr_out R) as Hq.
  unfold prog_tyguard_src. rewrite (check_gen_decls_tyguard eager p q Hm Hnc H). simpl.
  destruct (check_defs_gen_sigs _ _ _ _ _ Hdefs) as [_ Hsig].
  eapply (check_defs_gen_ptg _ _ W q (cdata_of q) (ccodata_of q) st1
            (final_world_types q st1 das cos Hcol Hq) Hsig
            (world_data _ _ W q st1 das cos I1 Hcol Hq Hx) (world_codata _ _ W q st1 das cos I1 Hcol Hq Hx)
            eager _ st (fcpdefs q) st1 Hnm Tb I0 Hdefs (grows_refl _)).
  intros d' Hd' Hc. unfold calls_main_prog. apply existsb_exists. exists d'. auto.
Qed.

Theorem check_tyguard : forall p q,
  prog_names_ok p = true -> no_cont_decl p = true ->
  check p = COk q -> xtor_tys_guard q = true -> prog_tyguard q = true.
Proof.
  intros p q Hm Hnc H Hx. apply (tyguard_src_checked true p q H). exact (check_gen_tyguard_src true p q Hm Hnc H Hx).
Qed.
