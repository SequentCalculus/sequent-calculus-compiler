(* C07, forward simulation for HEAP statements on AArch64, part 6a: appending a variable that owns a pointer
   (`hrel_push_ptr`) and `a_store` of any number of variables, the empty store included (`hsim_store_any`).
   x86-64: Proof/X86HSimHeapA.v (the inversion lemmas `cs_let`, `cs_switch`, ... are in Proof/A64HLayout.v here). *)
From Coq Require Import List ZArith NArith String Bool Lia FMapPositive Permutation.
From SCC Require Import Base.Sexp Lang.AxSyn Sem.AxSem Sem.AxHeap Model.ParMoves Model.Backend Model.A64 Sem.A64Sem
     Model.Linearize Model.LinCheck Generated.Constants Proof.LinBasics
     Proof.A64State Proof.A64ImmHw Proof.A64Imm Proof.A64Sel Proof.A64PM Proof.A64Exec
     Proof.A64MemSubst Proof.SubstGraph Proof.SubstBackends Proof.A64Subst Proof.A64Wf Proof.A64Print
     Proof.A64SimRel Proof.A64SimStmt Proof.A64SimAddr Proof.A64SimClo Proof.HRep Proof.A64Mem Proof.A64MemOps
     Proof.A64MemStore Proof.A64MemStoreChain
     Proof.A64HSimRel Proof.A64HSimStmt Proof.A64HConv Proof.A64HSimStore Proof.A64HLayout.
From SCC Require Model.Heap Proof.HeapMore Proof.HeapTrace Proof.HeapRep
     Proof.X86Mem Proof.X86MemFrame Proof.X86HeapDefs Proof.X86HeapCongr Proof.X86HBridge Proof.X86HFrame Proof.X86HSimHeapA.
Import ListNotations.
Open Scope Z_scope.
Open Scope list_scope.

Notation bsplit_last_app := X86HSimHeapA.bsplit_last_app.
Notation asplit_last_app := X86HSimHeapA.asplit_last_app.

Lemma a_store_nil rest lc : a_store [] rest lc = (dor t <- a_fresh Fst rest; Ok (a_load_immediate t 0, lc)).
Proof. reflexivity. Qed.

Section A.
Variable im : image.
Variable types : list tydecl.
Variable CLO : Z -> ident -> list clause -> ctx -> Prop.
Local Notation hrel := (hrel types CLO).
Local Notation hvrep := (hvrep types CLO).
Local Notation xrep := (HRep.xrep types CLO jump_length in64).
Local Notation xflds := (HRep.xflds types CLO jump_length in64).

(* appending a variable that owns a pointer: its first temporary holds the pointer already, the second one has
   just been written *)
Lemma hrel_push_ptr c he hs s s' sp x b v q a t1 t2 :
  hrel c he hs s sp -> NoDup (ids (c ++ [b])) -> idn (bvar b) = idn x ->
  bchi b <> Ext -> chi_of v = bchi b -> ty_of v = bty b ->
  atpos Fst (List.length c) = Ok t1 -> atpos Snd (List.length c) = Ok t2 ->
  preserved s s' sp t2 -> lget s sp t1 = Some q -> lget s' sp t2 = Some a -> xrep (hword s) v q a ->
  hrel (c ++ [b]) (he ++ [(x, v, q)]) hs s' sp.
Proof.
  intros R ND EX NB K1 K2 T1 T2 P L1 L2 X.
  apply (hrel_extend types CLO c he hs s s' sp x b v q t2 R ND EX T2 (preserved_weaken _ _ _ _ P)).
  destruct P as (PR & HE & _).
  destruct (atpos_ok _ _ _ T1) as (((A1 & B1 & C1) & _) & _).
  apply (hv_ptr types CLO s' sp (List.length c) b v q a t1 t2); auto.
  - rewrite PR; auto. intros E; subst. destruct (SubstGraph.tpos_inj a64_backend a64_backend_ok _ _ _ _ _ T1 T2) as [E _]. discriminate.
  - apply (HRep.xrep_ext types CLO jump_length in64 (hword s) (hword s')); [intros a0 _; apply hword_heap; exact HE|exact X].
Qed.

Theorem hsim_store_any rest args he0 fsE hs s sp lc c1 lc1 pc hl fl cl :
  hrel (rest ++ args) (he0 ++ fsE) hs s sp ->
  List.length he0 = List.length rest ->
  InvA X86Sem.HEAP_BASE hs (roots (he0 ++ fsE)) hl fl cl -> P03 hs ->
  (forall en, In en fsE -> chi_of (h_val en) = Ext -> h_ptr en = 0) ->
  a_store args rest lc = Ok (c1, lc1) ->
  code_at im pc c1 -> labels_at_nh im pc c1 ->
  let res := Heap.alloc_object (map store_ptr fsE) hs in
  Heap.frontier (snd res) + 64 <= LIMIT -> Heap.heap (snd res) <> 0 -> Heap.free (snd res) <> 0 ->
  exists s', exec_to im pc s (padd pc (List.length c1)) s' /\ hframe_eq s s' sp /\
    hrel rest he0 (snd res) s' sp /\
    (exists t1, atpos Fst (List.length rest) = Ok t1 /\ lget s' sp t1 = Some (fst res)) /\
    xflds (hword s') (map h_val fsE) (fst res).
Proof.
  intros R L0 IA K03 EX XS CA LA res HF HH0 HF0.
  destruct args as [|a0 ar].
  - (* nothing to store: the null pointer *)
    pose proof (hrel_length R) as LEN. rewrite !app_length in LEN. cbn [List.length] in LEN.
    assert (fsE = []) by (destruct fsE; [reflexivity|cbn in LEN; lia]). subst fsE.
    rewrite !app_nil_r in *. unfold res. cbn [map Heap.alloc_object fst snd].
    rewrite a_store_nil in XS. destruct (a_fresh Fst rest) as [t1|] eqn:T1; cbn [rbind] in XS; [|discriminate].
    inversion XS; subst c1 lc1. clear XS.
    assert (T1' : atpos Fst (List.length rest) = Ok t1) by exact T1.
    destruct (atpos_ok _ _ _ T1') as ((O1 & _) & NF1 & NH1). pose proof O1 as (L1 & _ & _).
    destruct (a64_load_immediate_ok im s sp t1 0 (hr_frame R) O1 ltac:(unfold in64, two63; lia)) as (s1 & E1 & V1 & P1).
    pose proof P1 as (PR1 & HE1 & _ & _ & F1).
    assert (FE : frame_eq s s1 sp).
    { eapply run_straight_local; [|exact (hr_frame R)|exact E1]. apply local_load_immediate, loc_ok_lok, L1. }
    exists s1. split; [apply (run_straight_exec_to im _ pc s s1 CA E1)|]. split; [apply frame_eq_hframe; exact FE|].
    split; [|split; [exists t1; auto|constructor]].
    apply (hrel_keep types CLO rest he0 hs s s1 sp R F1 HE1).
    + apply (PR1 (AR HEAP)); [exact I|congruence|discriminate|discriminate].
    + apply (PR1 (AR FREE)); [exact I|congruence|discriminate|discriminate].
    + intros i b n t Hi _ Ti. destruct (atpos_ok _ _ _ Ti) as (((A & B & C) & _) & _). apply PR1; auto.
      assert (Li : (i < List.length rest)%nat) by (apply nth_error_Some; congruence).
      apply (atpos_other _ _ _ _ _ _ Ti T1'). lia.
  - eapply (hsim_store im types CLO); eauto. discriminate.
Qed.

(* Let and Create: the last variables are stored into a new object (code c1), then straight code c2 writes the data
   word of the new variable v into its second temporary *)
Theorem hsim_alloc rest args he0 fsE hs s sp lc c1 lc1 c2 pc hl fl cl v k t val dw tmpv :
  hrel (rest ++ args) (he0 ++ fsE) hs s sp ->
  List.length he0 = List.length rest ->
  InvA X86Sem.HEAP_BASE hs (roots (he0 ++ fsE)) hl fl cl -> P03 hs ->
  (forall en, In en fsE -> chi_of (h_val en) = Ext -> h_ptr en = 0) ->
  a_store args rest lc = Ok (c1, lc1) ->
  code_at im pc (c1 ++ c2) -> labels_at_nh im pc c1 ->
  let res := Heap.alloc_object (map store_ptr fsE) hs in
  Heap.frontier (snd res) + 64 <= LIMIT -> Heap.heap (snd res) <> 0 -> Heap.free (snd res) <> 0 ->
  NoDup (ids (rest ++ [mkb v k t])) -> k <> Ext -> chi_of val = k -> ty_of val = t ->
  avt (rest ++ [mkb v k t]) (idn v) = Ok tmpv ->
  (loc_ok tmpv -> local_code c2 = true) ->
  (forall s1, frame_ok s1 sp -> operand_ok tmpv ->
     exists s2, run_straight im c2 s1 = MOk s2 /\ lget s2 sp tmpv = Some dw /\ preserved s1 s2 sp tmpv) ->
  (forall w, xflds w (map h_val fsE) (fst res) -> xrep w val (fst res) dw) ->
  exists s', exec_to im pc s (padd pc (List.length (c1 ++ c2))) s' /\
    hrel (rest ++ [mkb v k t]) (he0 ++ [(v, val, fst res)]) (snd res) s' sp /\ hframe_eq s s' sp.
Proof.
  intros R L0 IA K03 EX XS CA LA1 res HF HH0 HF0 ND NB K1 K2 TV LOC LOAD XR.
  apply code_at_app in CA as [CA1 CA2].
  destruct (hsim_store_any rest args he0 fsE hs s sp lc c1 lc1 pc hl fl cl R L0 IA K03 EX XS CA1 LA1 HF HH0 HF0)
    as (s1 & X1 & FE1 & R1 & (t1 & T1 & Lt1) & XF1).
  fold res in R1, Lt1, XF1.
  assert (T2 : atpos Snd (List.length rest) = Ok tmpv).
  { rewrite <- TV. symmetry. apply (vt_tpos a64_backend Snd (rest ++ [mkb v k t]) (List.length rest) (mkb v k t) ND). apply nth_error_mid. }
  destruct (atpos_ok _ _ _ T2) as ((O2 & _) & _ & _).
  destruct (LOAD s1 (hr_frame R1) O2) as (s2 & E2 & V2 & P2).
  assert (FE2 : frame_eq s1 s2 sp).
  { eapply run_straight_local; [|exact (hr_frame R1)|exact E2]. apply LOC, O2. }
  exists s2. split.
  { rewrite app_length, padd_add. eapply exec_to_trans; [exact X1|]. apply (run_straight_exec_to im _ _ s1 s2 CA2 E2). }
  split; [|eapply hframe_eq_trans; [exact FE1|apply frame_eq_hframe; exact FE2]].
  apply (hrel_push_ptr rest he0 (snd res) s1 s2 sp v (mkb v k t) val (fst res) dw t1 tmpv); auto.
Qed.
End A.
