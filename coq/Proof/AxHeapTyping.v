(* Type preservation for the (instrumented) linear machine: in every configuration reachable by a
   linearity-checked program the environment is exactly the typing context of the statement (names,
   and kinds/types of the values), closures carry clauses that are typed in the context they
   will run in, objects carry fields of the kinds their constructor declares.  This is what makes
   `ctx_of` (Sem/AxHeap.v) the context `code_statement` is called with. *)
From Coq Require Import List ZArith NArith String Bool Lia.
From SCC Require Import Base.Sexp Lang.AxSyn Sem.AxSem Model.Linearize Model.LinCheck Sem.AxHeap.
From SCC Require Import Proof.LinBasics Proof.LinTyping Proof.LinMachine Proof.AxHeapErase.
From SCC Require Model.Heap.
Import ListNotations.
Open Scope list_scope.

Inductive val_wt (S : sigs) : value -> chi -> ty -> Prop :=
| VW_int z : val_wt S (VInt z) Ext I64
| VW_obj tn tag fs sg :
    lookup_xtor S (Decl tn) tag = Some sg -> vals_wt S fs sg -> val_wt S (VObj tn tag fs) Prd (Decl tn)
| VW_clo tn cls ce cenv xs :
    type_xtors S (Decl tn) = Some xs -> clauses_sig cls xs ->
    map fst ce = vars cenv -> vals_wt S (map snd ce) cenv ->
    Forall (fun cl => lin_wt S (cl_ctx cl ++ cenv) (cl_body cl)) cls ->
    val_wt S (VClo tn cls ce) Cns (Decl tn)
with vals_wt (S : sigs) : list value -> ctx -> Prop :=
| VSW_nil : vals_wt S [] []
| VSW_cons v vs b bs : val_wt S v (bchi b) (bty b) -> vals_wt S vs bs -> vals_wt S (v :: vs) (b :: bs).

Definition env_wt (S : sigs) (e : env) (c : ctx) : Prop := map fst e = vars c /\ vals_wt S (map snd e) c.
Definition cfg_wt (p : prog) (he : henv) (s : stmt) : Prop :=
  exists c, lin_wt (sigs_of p) c s /\ env_wt (sigs_of p) (erase_env he) c.

Lemma val_wt_kind S v k t : val_wt S v k t -> chi_of v = k /\ ty_of v = t.
Proof. destruct 1; cbn; auto. Qed.

Lemma vals_wt_length S vs c : vals_wt S vs c -> List.length vs = List.length c.
Proof. induction 1; cbn; auto. Qed.
Lemma vals_wt_same_kt S vs : forall c c', vals_wt S vs c -> same_kt c c' -> vals_wt S vs c'.
Proof.
  induction vs as [|v vs IH]; intros c c' H K; inversion H; subst; inversion K; subst; constructor.
  - match goal with HK : _ /\ _ |- _ => destruct HK as [E1 E2] end. rewrite <- E1, <- E2. assumption.
  - eapply IH; eauto.
Qed.
Lemma vals_wt_app S : forall vs1 c1 vs2 c2, vals_wt S vs1 c1 -> vals_wt S vs2 c2 -> vals_wt S (vs1 ++ vs2) (c1 ++ c2).
Proof. induction vs1 as [|v vs1 IH]; intros c1 vs2 c2 H1 H2; inversion H1; subst; cbn; auto. constructor; auto. Qed.
Lemma vals_wt_app_inv S : forall vs1 vs2 c1 c2,
  vals_wt S (vs1 ++ vs2) (c1 ++ c2) -> List.length vs1 = List.length c1 -> vals_wt S vs1 c1 /\ vals_wt S vs2 c2.
Proof.
  induction vs1 as [|v vs1 IH]; intros vs2 c1 c2 H L; destruct c1 as [|b c1]; cbn in *; try discriminate.
  - split; [constructor|assumption].
  - inversion H; subst. destruct (IH vs2 c1 c2) as [A B]; auto. split; [constructor; auto|auto].
Qed.

Lemma env_wt_app S e1 c1 e2 c2 : env_wt S e1 c1 -> env_wt S e2 c2 -> env_wt S (e1 ++ e2) (c1 ++ c2).
Proof.
  intros [A1 B1] [A2 B2]. split.
  - rewrite map_app, vars_app. congruence.
  - rewrite map_app. now apply vals_wt_app.
Qed.
Lemma app_inv_length {X} : forall (a1 a2 b1 b2 : list X),
  a1 ++ a2 = b1 ++ b2 -> List.length a1 = List.length b1 -> a1 = b1 /\ a2 = b2.
Proof.
  induction a1 as [|x a1 IH]; intros a2 [|y b1] b2 H L; cbn in *; try discriminate; auto.
  inversion H; subst. destruct (IH a2 b1 b2) as [-> ->]; auto.
Qed.
Lemma env_wt_app_inv S e1 e2 c1 c2 :
  env_wt S (e1 ++ e2) (c1 ++ c2) -> List.length e2 = List.length c2 -> env_wt S e1 c1 /\ env_wt S e2 c2.
Proof.
  intros [A B] L2.
  assert (L : List.length e1 = List.length c1).
  { pose proof (vals_wt_length _ _ _ B) as L. rewrite map_length, !app_length in L. lia. }
  rewrite map_app in A, B. rewrite vars_app in A.
  destruct (vals_wt_app_inv S _ _ _ _ B) as [B1 B2]; [rewrite map_length; exact L|].
  assert (List.length (map fst e1) = List.length (vars c1)) as L1 by (rewrite map_length, vars_length; exact L).
  apply app_inv_length in A; auto. destruct A as [A1 A2]. split; split; auto.
Qed.

Lemma env_wt_length S e c : env_wt S e c -> List.length e = List.length c.
Proof. intros [_ B]. apply vals_wt_length in B. now rewrite map_length in B. Qed.
Lemma env_wt_ids S e c : env_wt S e c -> env_ids e = ids c.
Proof. intros [A _]. now apply env_ids_shape. Qed.

Lemma env_wt_lookup S : forall he c x b en,
  env_wt S (erase_env he) c -> lookup_b c x = Some b -> hlookup he x = Some en ->
  val_wt S (h_val en) (bchi b) (bty b).
Proof.
  induction he as [|[[y v] q] he IH]; intros c x b en [A B] Hb He; [discriminate|].
  destruct c as [|b0 c]; [discriminate|]. cbn in A, B. inversion A; subst. inversion B; subst.
  cbn in Hb, He. unfold h_id in He; cbn in He. unfold lookup_b in Hb; cbn in Hb.
  destruct (N.eqb (idn (bvar b0)) x).
  - inversion Hb; inversion He; subst. cbn. assumption.
  - eapply IH; eauto. split; auto.
Qed.

Lemma bind_env_wt S : forall xs vs e c,
  bind xs vs = Some e -> xs = vars c -> vals_wt S vs c -> env_wt S e c.
Proof.
  intros xs vs e c Hb -> Hv. apply bind_Some_length in Hb as [L ->]. split.
  - now apply combine_map_fst.
  - rewrite combine_map_snd; auto.
Qed.

Lemma find_map {A B} (f : B -> bool) (g : A -> B) l : find f (map g l) = option_map g (find (fun x => f (g x)) l).
Proof. induction l as [|a l IH]; cbn; auto. destruct (f (g a)); auto. Qed.

Lemma lookup_label_find_def p l d : find_def p l = Some d -> lookup_label (sigs_of p) l = Some (dctx d).
Proof.
  unfold find_def, lookup_label, sigs_of. cbn [sg_labels]. intros H. rewrite find_map. cbn [fst]. rewrite H. reflexivity.
Qed.
Lemma lin_prog_def p d : lin_check_prog p = true -> In d (pdefs p) -> lin_wt (sigs_of p) (dctx d) (dbody d).
Proof.
  unfold lin_check_prog. rewrite forallb_forall. intros H Hd. apply lin_check_sound. apply (H d Hd).
Qed.

Lemma find_clause_sig : forall cls xs tag c,
  clauses_sig cls xs -> find_clause cls tag = Some c ->
  exists x, find (fun x => ident_eqb (xname x) tag) xs = Some x /\ same_kt (cl_ctx c) (xargs x) /\ In c cls.
Proof.
  unfold find_clause. induction 1 as [|cl x cls xs [E K] H IH]; cbn; [discriminate|]. intros Hf.
  rewrite <- E. destruct (ident_eqb (cl_xtor cl) tag).
  - inversion Hf; subst. exists x. auto.
  - destruct (IH Hf) as (x' & A & B & C). exists x'. auto.
Qed.
Lemma lookup_xtor_xs S t tag xs sg :
  type_xtors S t = Some xs -> lookup_xtor S t tag = Some sg ->
  exists x, find (fun x => ident_eqb (xname x) tag) xs = Some x /\ xargs x = sg.
Proof.
  unfold lookup_xtor. intros ->. destruct (find _ xs) as [x|]; [|discriminate]. intros H; inversion H. eauto.
Qed.

Lemma split_last_Some_app {X} n (l a b : list X) : AxSem.split_last n l = Some (a, b) -> l = a ++ b /\ List.length b = n.
Proof.
  unfold AxSem.split_last. destruct (Nat.leb n (List.length l)) eqn:E; [|discriminate]. intros H; inversion H; subst.
  apply Nat.leb_le in E. split; [symmetry; apply firstn_skipn|]. rewrite skipn_length. lia.
Qed.

Lemma ids_length_eq a b : ids a = ids b -> List.length a = List.length b.
Proof. intros H. rewrite <- (ids_length a), <- (ids_length b). now rewrite H. Qed.

Theorem hstep_wt p he hs s ops he' s' pr :
  lin_check_prog p = true -> cfg_wt p he s ->
  hstep p he hs s = HStep ops he' s' pr -> cfg_wt p he' s'.
Proof.
  intros LP (c & W & E) HS. set (S := sigs_of p) in *.
  destruct W as [c re next ND SRC W|c l args ps ND LL K|c0 tl v t tag args sg next ND IDS K1 LX K2 W
                |c0 b v t cls xs ND IDV KB TB TX CS WC|c0 tl v t cenv cls xs next ND IDS K1 TX CS WC W
                |c0 b v tag t args sg ND IDV KB TB LX K|c n v next ND W|c a o b v next ND EA EB W
                |c nl v next ND EV W|c so a b t e ND EA EB WT WE|c v ND EV]; cbn [hstep] in HS.
  - (* substitute *)
    destruct (hsubst he re) as [he1|] eqn:HSu; [|discriminate]. inversion HS; subst. clear HS.
    exists (map fst re). split; [exact W|].
    clear W ND. revert he' HSu. induction re as [|[nb old] re IH]; intros he' HSu; cbn [hsubst] in HSu.
    + inversion HSu; subst. split; constructor.
    + destruct (hlookup he (idn old)) as [en|] eqn:HL; [|discriminate].
      destruct (hsubst he re) as [he2|] eqn:H2; [|discriminate]. inversion HSu; subst. clear HSu.
      inversion SRC as [|? ? S1 S2]; subst. destruct (IH S2 he2 eq_refl) as [A B].
      destruct S1 as (b & Lb & Kb & Tb). cbn [fst snd] in *.
      pose proof (env_wt_lookup S he c (idn old) b en E Lb HL) as Hv. rewrite Kb, Tb in Hv.
      split; cbn [erase_env map fst snd vars bvar]; [f_equal; exact A|constructor; auto].
  - (* call *)
    destruct (find_def p l) as [d|] eqn:FD; [|discriminate].
    destruct (bind (vars (dctx d)) (map snd (erase_env he))) as [e1|] eqn:B; [|discriminate]. inversion HS; subst. clear HS.
    pose proof (lookup_label_find_def p l d FD) as LL'. fold S in LL'. rewrite LL in LL'. inversion LL'; subst ps.
    exists (dctx d). split.
    + apply lin_prog_def; auto. unfold find_def in FD. apply find_some in FD. tauto.
    + rewrite erase_attach. eapply bind_env_wt; eauto. destruct E as [_ B1]. eapply vals_wt_same_kt; eauto.
  - (* let *)
    destruct (ty_name t) as [tn|] eqn:TN; [|discriminate].
    destruct (AxSem.split_last (List.length args) he) as [[he0 fs]|] eqn:SL; [|discriminate].
    destruct (ids_eqb _ _); [|discriminate]. inversion HS; subst. clear HS.
    apply split_last_Some_app in SL as [-> Lfs].
    assert (Lt : List.length tl = List.length args) by now apply ids_length_eq.
    rewrite erase_app in E.
    destruct (env_wt_app_inv S _ _ _ _ E ltac:(rewrite erase_length; lia)) as [E0 [_ Ef]].
    destruct t as [|tn']; [discriminate|]. cbn in TN. inversion TN; subst tn'.
    exists (c0 ++ [mkb v Prd (Decl tn)]). split; [exact W|].
    rewrite erase_app. apply env_wt_app; auto. split; [reflexivity|]. cbn. constructor; [|constructor]. cbn.
    econstructor; eauto. rewrite <- map_snd_erase. eapply vals_wt_same_kt; [exact Ef|]. eapply same_kt_trans; eauto.
  - (* switch *)
    destruct (AxSem.split_last 1 he) as [[he0 l]|] eqn:SL; [|discriminate].
    destruct l as [|[[x v0] q] [|en2 l]]; [discriminate| |destruct v0; discriminate].
    destruct v0 as [z|ty tg fs|ty cs ce]; [discriminate| |discriminate].
    destruct (N.eqb (idn x) (idn v)); [|discriminate].
    destruct (find_clause cls tg) as [cl|] eqn:FC; [|discriminate].
    destruct (bind (vars (cl_ctx cl)) fs) as [e1|] eqn:B; [|discriminate]. inversion HS; subst. clear HS.
    apply split_last_Some_app in SL as [-> _]. rewrite erase_app in E.
    destruct (env_wt_app_inv S _ _ _ _ E eq_refl) as [E0 [_ Ef]]. cbn in Ef. inversion Ef as [|? ? ? ? Hv _]; subst.
    rewrite KB in Hv. inversion Hv as [|? ? ? sg LX VS|]; subst.
    destruct (find_clause_sig cls xs tg cl CS FC) as (x1 & F1 & K1 & IN).
    match goal with H : Decl _ = bty b |- _ => symmetry in H; rename H into TB end.
    rewrite TB in TX. destruct (lookup_xtor_xs S _ tg xs sg TX LX) as (x2 & F2 & <-).
    rewrite F1 in F2. inversion F2; subst x2.
    exists (c0 ++ cl_ctx cl). split.
    + rewrite Forall_forall in WC. now apply WC.
    + rewrite erase_app, erase_attach. apply env_wt_app; auto. eapply bind_env_wt; eauto.
      eapply vals_wt_same_kt; [exact VS|]. now apply same_kt_sym.
  - (* create *)
    destruct (ty_name t) as [tn|] eqn:TN; [|discriminate].
    destruct (AxSem.split_last (List.length cenv) he) as [[he0 cap]|] eqn:SL; [|discriminate].
    destruct (ids_eqb _ _); [|discriminate].
    destruct (bind (vars cenv) (map h_val cap)) as [ce|] eqn:B; [|discriminate]. inversion HS; subst. clear HS.
    apply split_last_Some_app in SL as [-> Lcap].
    assert (Lt : List.length tl = List.length cenv) by now apply ids_length_eq.
    rewrite erase_app in E.
    destruct (env_wt_app_inv S _ _ _ _ E ltac:(rewrite erase_length; lia)) as [E0 [_ Ef]].
    destruct t as [|tn']; [discriminate|]. cbn in TN. inversion TN; subst tn'.
    exists (c0 ++ [mkb v Cns (Decl tn)]). split; [exact W|].
    rewrite erase_app. apply env_wt_app; auto. split; [reflexivity|]. cbn. constructor; [|constructor]. cbn.
    assert (Ece : env_wt S ce cenv).
    { eapply bind_env_wt; eauto. rewrite <- map_snd_erase. eapply vals_wt_same_kt; eauto. }
    destruct Ece as [A1 B1]. econstructor; eauto.
  - (* invoke *)
    destruct (AxSem.split_last 1 he) as [[he0 l]|] eqn:SL; [|discriminate].
    destruct l as [|[[x v0] q] [|en2 l]]; [discriminate| |destruct v0; discriminate].
    destruct v0 as [z|ty tg fs|ty cs ce]; [discriminate|discriminate|].
    destruct (N.eqb (idn x) (idn v)); [|discriminate].
    destruct (find_clause cs tag) as [cl|] eqn:FC; [|discriminate].
    destruct (bind (vars (cl_ctx cl)) (map snd (erase_env he0))) as [e1|] eqn:B; [|discriminate]. inversion HS; subst. clear HS.
    apply split_last_Some_app in SL as [-> _]. rewrite erase_app in E.
    destruct (env_wt_app_inv S _ _ _ _ E eq_refl) as [E0 [_ Ef]]. cbn in Ef. inversion Ef as [|? ? ? ? Hv _]; subst.
    rewrite KB in Hv. inversion Hv as [| |? ? ? cenv xs TX CS A1 B1 WC]; subst.
    destruct (find_clause_sig cs xs tag cl CS FC) as (x1 & F1 & K1 & IN).
    match goal with H : Decl _ = bty b |- _ => symmetry in H; rename H into TB end.
    rewrite TB in LX. destruct (lookup_xtor_xs S _ tag xs sg TX LX) as (x2 & F2 & <-).
    rewrite F1 in F2. inversion F2; subst x2.
    exists (cl_ctx cl ++ cenv). split.
    + rewrite Forall_forall in WC. now apply WC.
    + rewrite erase_app, !erase_attach. apply env_wt_app; [|split; auto].
      eapply bind_env_wt; eauto. destruct E0 as [_ B0]. eapply vals_wt_same_kt; [exact B0|].
      eapply same_kt_trans; [exact K|]. now apply same_kt_sym.
  - (* literal *)
    inversion HS; subst. exists (c ++ [mkb v Ext I64]). split; [exact W|].
    rewrite erase_app. apply env_wt_app; auto. split; [reflexivity|]. cbn. constructor; constructor.
  - (* op *)
    destruct (lookup_int (erase_env he) a); [|discriminate]. destruct (lookup_int (erase_env he) b); [|discriminate].
    destruct (eval_op o z z0); [|discriminate]. inversion HS; subst.
    exists (c ++ [mkb v Ext I64]). split; [exact W|].
    rewrite erase_app. apply env_wt_app; auto. split; [reflexivity|]. cbn. constructor; constructor.
  - (* print *)
    destruct (lookup_int (erase_env he) v); [|discriminate]. inversion HS; subst. exists c. auto.
  - (* ifc *)
    destruct (lookup_int (erase_env he) a); [|discriminate].
    destruct (match b with Some b0 => lookup_int (erase_env he) b0 | None => Some 0%Z end); [|discriminate].
    inversion HS; subst. exists c. split; auto. destruct (eval_cmp so z z0); auto.
  - (* exit *)
    destruct (lookup_int (erase_env he) v); discriminate.
Qed.

(* the context a checked statement is typed in is the one the machine reconstructs from its values *)
Lemma env_wt_ctx_of S he c : env_wt S (erase_env he) c -> ctx_of he = c.
Proof.
  revert c. induction he as [|[[x v] q] he IH]; intros c [A B]; destruct c as [|b c]; try discriminate; auto.
  cbn in A, B. inversion A; subst. inversion B; subst. cbn. f_equal.
  - unfold binding_of, h_id, h_val; cbn. match goal with H : val_wt _ _ _ _ |- _ => apply val_wt_kind in H as [-> ->] end.
    now destruct b.
  - apply IH. split; auto.
Qed.

Definition all_ext (c : ctx) : bool := forallb (fun b => chi_eqb (bchi b) Ext && ty_eqb (bty b) I64) c.
Definition entry_ext (p : prog) : bool := match pdefs p with d :: _ => all_ext (dctx d) | [] => true end.

Lemma vals_wt_ints S : forall c args, all_ext c = true -> List.length args = List.length c -> vals_wt S (map VInt args) c.
Proof.
  induction c as [|b c IH]; intros [|z args] H L; cbn in *; try discriminate; [constructor|].
  apply andb_true_iff in H as [H1 H2]. apply andb_true_iff in H1 as [K T].
  apply chi_eqb_eq in K. apply ty_eqb_eq in T. constructor; [rewrite K, T; constructor|]. apply IH; auto.
Qed.

Lemma hinit_wt base p d ds e args :
  lin_check_prog p = true -> entry_ext p = true -> pdefs p = d :: ds -> entry_env d args = Some e ->
  cfg_wt p (hc_env (hinit base d e)) (hc_stmt (hinit base d e)).
Proof.
  intros LP EE PD EN. unfold hinit; cbn [hc_env hc_stmt]. exists (dctx d). split.
  - apply lin_prog_def; auto. rewrite PD. now left.
  - rewrite erase_attach. unfold entry_env in EN. unfold entry_ext in EE. rewrite PD in EE.
    pose proof (bind_Some_length _ _ _ EN) as [L _]. rewrite vars_length, map_length in L.
    eapply bind_env_wt; eauto. apply vals_wt_ints; auto.
Qed.

Theorem hsteps_wt p c tr c' :
  lin_check_prog p = true -> cfg_wt p (hc_env c) (hc_stmt c) -> hsteps p c tr c' ->
  cfg_wt p (hc_env c') (hc_stmt c').
Proof.
  intros LP W H. induction H as [|c tr c1 ops he' s' pr H IH HS]; auto.
  cbn [hc_env hc_stmt]. eapply hstep_wt; [exact LP|exact (IH W)|exact HS].
Qed.
