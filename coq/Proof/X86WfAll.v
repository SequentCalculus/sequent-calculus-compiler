(* C14, x86-64: EVERY instruction the code generator and the routine wrapper emit is well-formed, for every
   program inside the boolean guards of Sem/WfGuard.v: [x86_compile_asm_wf] (asm_wf cs = None) and
   [x86_compile_code_small] (code_small cs = true under a bound on the program size).

   Structure: the body predicate [cok] on one instruction (encodable: Sem/X86Wf.instr_wf; every referenced label is
   not a '#'-mark; a call goes to one of the two print routines; no EXTERN directive), a lemma `W (method ...)` for
   each method of x86_backend (W l = every instruction of l passes cok), the generic theorem
   Proof/CodegenForallLin.v (every piece of code_statement's output comes from a method, with the guarantees of
   the linear discipline on the arguments), and the label theorems of Proof/LabelThms.v for uniqueness and
   definedness. *)
From Coq Require Import List ZArith NArith String Ascii Bool Lia.
From SCC Require Import Base.Sexp Lang.AxSyn Lang.AxSize Model.ParMoves Model.Backend Model.Linearize Model.LinCheck Model.X86
  Model.SizeWf Sem.X86Sem Sem.X86Wf Sem.LabelGuard Sem.WfGuard Generated.Constants
  Proof.LinBasics Proof.SubstGraph Proof.X86Wf Proof.LabelStrings Proof.LabelGen Proof.LabelsX86 Proof.LabelThms
  Proof.CodegenForallLin Proof.SimFrag Proof.X86SimAddr Proof.SizeCodegenWf Proof.SizeX86.
Import ListNotations.
Local Open Scope string_scope.
Local Open Scope list_scope.

Definition cok (c : xcode) : bool :=
  instr_wf c && forallb (fun l => negb (is_hash_label l)) (referenced c)
  && match c with
     | CALL l => String.eqb l "print_i64" || String.eqb l "println_i64"
     | EXTERN _ => false
     | _ => true
     end.
Definition W (l : list xcode) : Prop := Forall (fun c => cok c = true) l.
Lemma W_nil : W [].
Proof. constructor. Qed.
Lemma W_app a b : W a -> W b -> W (a ++ b).
Proof. intros A C. apply Forall_app. split; assumption. Qed.
Lemma W_forallb l : forallb cok l = true -> W l.
Proof. intros H. apply Forall_forall. rewrite forallb_forall in H. exact H. Qed.

Lemma regok r : (r < 16)%N -> reg_ok r = true.
Proof. intros H. apply N.ltb_lt. exact H. Qed.
Lemma field_offset_fits n o : (o <= FIELDS_PER_BLOCK)%N -> fits32 (field_offset n o) = true.
Proof.
  intros H. unfold fits32, field_offset, address. change X86C.address1 with 8%Z.
  assert (0 <= Z.of_N o <= 3)%Z by (change FIELDS_PER_BLOCK with 3%N in H; lia).
  assert (0 <= Z.of_N (tnum_n n) <= 1)%Z by (destruct n; cbn; lia).
  apply andb_true_iff; split; apply Z.leb_le; lia.
Qed.
Lemma lab_plain n : is_hash_label (lab n) = false.
Proof. reflexivity. Qed.
Lemma reg_HEAP : (HEAP < 16)%N. Proof. reflexivity. Qed.
Lemma reg_FREE : (FREE < 16)%N. Proof. reflexivity. Qed.
Lemma reg_TT : (TEMPORARY_TEMP < 16)%N. Proof. reflexivity. Qed.
Lemma reg_TEMP : (TEMP < 16)%N. Proof. reflexivity. Qed.
Lemma slot_TEMP : (SPILL_TEMP < SPILL_NUM)%N. Proof. reflexivity. Qed.

Ltac wf1 :=
  unfold cok; cbn [instr_wf referenced forallb];
  rewrite ?stack_offset_fits by assumption; rewrite ?field_offset_fits by assumption;
  rewrite ?regok by assumption; rewrite ?lab_plain;
  repeat match goal with H : is_hash_label _ = false |- _ => rewrite H end;
  repeat match goal with H : ?x = true |- context [?x] => rewrite H end;
  repeat (apply andb_true_iff; split); try reflexivity;
  try (apply N.ltb_lt; first [assumption | (vm_compute; reflexivity)]).
Ltac wf :=
  unfold W;
  repeat match goal with
  | |- Forall _ (_ ++ _) => apply Forall_app; split
  | |- Forall _ (_ :: _) => constructor
  | |- Forall _ [] => constructor
  end; try wf1.

(* code.rs *)
Lemma W_move_to_register r t : (r < 16)%N -> temp_enc t -> W (move_to_register r t).
Proof. intros R T. destruct t; cbn [temp_enc move_to_register] in *; wf. Qed.
Lemma W_move_from_register t r : temp_enc t -> (r < 16)%N -> W (move_from_register t r).
Proof. intros T R. destruct t; cbn [temp_enc move_from_register] in *; wf. Qed.
Lemma W_add_to_register r t : (r < 16)%N -> temp_enc t -> W (add_to_register r t).
Proof. intros R T. destruct t; cbn [temp_enc add_to_register] in *; wf. Qed.
Lemma W_add_to_spill q t : (q < SPILL_NUM)%N -> temp_enc t -> W (add_to_spill q t).
Proof. intros Q T. destruct t; cbn [temp_enc add_to_spill] in *; wf. Qed.
Lemma W_mul_to_register r t : (r < 16)%N -> temp_enc t -> W (mul_to_register r t).
Proof. intros R T. destruct t; cbn [temp_enc mul_to_register] in *; wf. Qed.
Lemma W_sub_to_register r t : (r < 16)%N -> temp_enc t -> W (sub_to_register r t).
Proof. intros R T. destruct t; cbn [temp_enc sub_to_register] in *; wf. Qed.
Lemma W_sub_to_spill q t : (q < SPILL_NUM)%N -> temp_enc t -> W (sub_to_spill q t).
Proof. intros Q T. destruct t; cbn [temp_enc sub_to_spill] in *; wf. Qed.
Lemma W_div_core t : temp_enc t -> W (div_core t).
Proof. intros T. destruct t as [r|p]; cbn [temp_enc div_core] in *; [destruct (N.eqb r RETURN2)|]; wf. Qed.

Lemma xtemp_eqb_eq a b : xtemp_eqb a b = true -> a = b.
Proof. destruct a, b; cbn [xtemp_eqb]; try discriminate; intros H; apply N.eqb_eq in H; now subst. Qed.

(* the memory-destination form is used only when the target spill slot is one of the operands; for multiplication
   that form (IMULMR) does not exist, hence the exclusion in W_arith *)
Lemma W_op_commutative to_reg to_spill t s1 s2 :
  (forall r s, (r < 16)%N -> temp_enc s -> W (to_reg r s)) ->
  (t = s1 \/ t = s2 -> forall q s, (q < SPILL_NUM)%N -> temp_enc s -> W (to_spill q s)) ->
  temp_enc t -> temp_enc s1 -> temp_enc s2 -> W (op_commutative to_reg to_spill t s1 s2).
Proof.
  intros TR TS T S1 S2. assert (R1 : (TEMP < 16)%N) by reflexivity. unfold op_commutative.
  destruct (xtemp_eqb t s1) eqn:E1; [|destruct (xtemp_eqb t s2) eqn:E2].
  - apply xtemp_eqb_eq in E1. destruct t; cbn [temp_enc] in T; auto.
  - apply xtemp_eqb_eq in E2. destruct t; cbn [temp_enc] in T; auto.
  - destruct t; cbn [temp_enc] in T; repeat apply W_app; auto using W_move_to_register. wf.
Qed.
Lemma W_sub t s1 s2 : temp_enc t -> temp_enc s1 -> temp_enc s2 -> W (sub t s1 s2).
Proof.
  intros T S1 S2. assert (R1 : (TEMP < 16)%N) by reflexivity. unfold sub.
  destruct t; cbn [temp_enc] in T; destruct (xtemp_eqb _ s1); try destruct (xtemp_eqb _ s2);
    repeat apply W_app; auto using W_move_to_register, W_sub_to_register, W_sub_to_spill; wf.
Qed.
Lemma W_div_rem (is_rem : bool) t s1 s2 :
  temp_enc t -> temp_enc s1 -> temp_enc s2 -> W (if is_rem then x_rem t s1 s2 else x_div t s1 s2).
Proof.
  intros T S1 S2. assert (R4 : (RETURN1 < 16)%N) by reflexivity. assert (R5 : (RETURN2 < 16)%N) by reflexivity.
  destruct is_rem; unfold x_rem, x_div;
    repeat apply W_app; auto using W_move_to_register, W_move_from_register, W_div_core; wf.
Qed.
Lemma W_arith o t s1 s2 :
  o <> Prod \/ (t <> s1 /\ t <> s2) ->
  temp_enc t -> temp_enc s1 -> temp_enc s2 -> W (x_arith o t s1 s2).
Proof.
  intros NP T S1 S2. destruct o; cbn [x_arith].
  - exact (W_div_rem false t s1 s2 T S1 S2).
  - apply W_op_commutative; auto using W_mul_to_register. intros AL. exfalso. destruct NP as [NP|[N1 N2]]; [congruence|tauto].
  - exact (W_div_rem true t s1 s2 T S1 S2).
  - apply W_op_commutative; auto using W_add_to_register, W_add_to_spill.
  - now apply W_sub.
Qed.
Lemma W_load_immediate t i : temp_enc t -> lit64 i = true -> W (x_load_immediate t i).
Proof.
  intros T R. unfold lit64 in R. apply andb_true_iff in R as [R1 R2].
  unfold x_load_immediate. destruct t as [r|p]; cbn [temp_enc] in T.
  - wf; assumption.
  - destruct (fits_i32 i) eqn:F.
    + unfold fits_i32 in F. apply andb_true_iff in F as [F1 F2]. wf; assumption.
    + wf; assumption.
Qed.
Lemma tag_lit64 k : (k < XTORS_MAX)%N -> lit64 (jump_length k) = true.
Proof. unfold XTORS_MAX, lit64, jump_length. intros H. apply andb_true_iff; split; apply Z.leb_le; lia. Qed.
Lemma tag_fits32 k : (k < XTORS_MAX)%N -> fits32 (jump_length k) = true.
Proof. unfold XTORS_MAX, fits32, jump_length. intros H. apply andb_true_iff; split; apply Z.leb_le; lia. Qed.
Lemma W_add_and_jump t k : temp_enc t -> (k < XTORS_MAX)%N -> W (x_add_and_jump t (jump_length k)).
Proof. intros T K. pose proof (tag_fits32 k K) as F. destruct t as [r|p]; cbn [temp_enc x_add_and_jump] in *; wf. Qed.
Lemma W_mov t s : temp_enc t -> temp_enc s -> W (x_mov t s).
Proof.
  intros T S. unfold x_mov. destruct s as [sr|sp], t as [tr|tp]; cbn [temp_enc] in *;
    cbn [move_to_register move_from_register app]; wf.
Qed.
Lemma W_compare a b : temp_enc a -> temp_enc b -> W (compare a b).
Proof. intros A B. destruct a, b; cbn [temp_enc compare] in *; wf. Qed.
Lemma W_compare_immediate a : temp_enc a -> W (compare_immediate a 0).
Proof. intros A. destruct a; cbn [temp_enc compare_immediate] in *; wf. Qed.
Lemma W_jcc s l : is_hash_label l = false -> W [jcc s l].
Proof. intros H. destruct s; cbn [jcc]; wf. Qed.
Lemma W_jump t : temp_enc t -> W (x_jump t).
Proof. intros T. destruct t; cbn [temp_enc x_jump] in *; wf. Qed.
Lemma W_load_label t l : temp_enc t -> is_hash_label l = false -> W (x_load_label t l).
Proof. intros T H. destruct t; cbn [temp_enc x_load_label] in *; wf. Qed.
Lemma W_store_temporary t f : temp_enc t -> W (x_store_temporary t f).
Proof.
  intros T. pose proof slot_TEMP as S0.
  destruct t, f; cbn [temp_enc x_store_temporary app] in *; wf.
Qed.
Lemma W_restore_temporary t f : temp_enc t -> W (x_restore_temporary t f).
Proof.
  intros T. pose proof slot_TEMP as S0.
  destruct t, f; cbn [temp_enc x_restore_temporary app] in *; wf.
Qed.

(* print_i64: the caller-save bracket *)
Lemma firstn_In_ {X} (x : X) n l : In x (firstn n l) -> In x l.
Proof. intros H. rewrite <- (firstn_skipn n l). apply in_or_app. left. exact H. Qed.
Lemma skipn_In_ {X} (x : X) n l : In x (skipn n l) -> In x l.
Proof. intros H. rewrite <- (firstn_skipn n l). apply in_or_app. right. exact H. Qed.
Lemma In_nseq o n : In o (nseq 0 n) -> (o < n)%N.
Proof. unfold nseq. intros H. apply in_map_iff in H as (k & <- & H). apply in_seq in H. lia. Qed.
Lemma In_combine_nseq {X} (o : N) (x : X) n l : In (o, x) (combine (nseq 0 n) l) -> (o < n)%N /\ In x l.
Proof. intros H. split; [apply In_nseq; eapply in_combine_l; eauto|eapply in_combine_r; eauto]. Qed.
Lemma csr_regs c r : In r (snd (caller_save_registers_info c)) -> (r < 16)%N.
Proof.
  unfold caller_save_registers_info. cbn [snd]. intros H. apply in_flat_map in H as ([o b] & H & Hr).
  apply In_combine_nseq in H as [Ho _].
  assert (LT : (o < 4)%N).
  { eapply N.lt_le_trans; [exact Ho|]. rewrite firstn_length.
    change (N.to_nat ((CALLER_SAVE_LAST + 1 - CALLER_SAVE_FIRST) / 2)) with 4%nat. lia. }
  change CALLER_SAVE_FIRST with 4%N in Hr.
  destruct (bchi b); cbn [In] in Hr; lia.
Qed.
Lemma W_movs_out fb used regs :
  (used <= N.to_nat (REGISTER_NUM - fb))%nat -> (forall r, In r regs -> (r < 16)%N) ->
  W (map (fun or_ : N * N => MOV (fb + fst or_)%N (snd or_)) (combine (nseq 0 (N.of_nat used)) (firstn used regs))) /\
  W (map (fun or_ : N * N => MOV (snd or_) (fb + fst or_)%N) (combine (nseq 0 (N.of_nat used)) (firstn used regs))).
Proof.
  intros U R. change REGISTER_NUM with 16%N in U.
  split; apply Forall_forall; intros c Hc; apply in_map_iff in Hc as ([o r] & <- & H); apply In_combine_nseq in H as [Ho Hr];
    cbn [fst snd]; assert (A : (fb + o < 16)%N) by lia; assert (A2 : (r < 16)%N) by (apply R; eapply firstn_In_; exact Hr); wf1.
Qed.
Lemma W_map1 (f : N -> xcode) l : (forall r, (r < 16)%N -> cok (f r) = true) -> (forall r, In r l -> (r < 16)%N) -> W (map f l).
Proof. intros F R. apply Forall_forall. intros c Hc. apply in_map_iff in Hc as (r & <- & H). apply F, R, H. Qed.
Lemma W_print nl s c : temp_enc s -> W (x_print nl s c).
Proof.
  intros T. unfold x_print. pose proof (csr_regs c) as R. destruct (caller_save_registers_info c) as [fb regs]. cbn [snd] in R.
  unfold save_caller_save_registers, restore_caller_save_registers.
  assert (U : (backup_used fb regs <= N.to_nat (REGISTER_NUM - fb))%nat) by (unfold backup_used; lia).
  destruct (W_movs_out fb _ regs U R) as [M1 M2].
  assert (RS : forall r, In r (skipn (backup_used fb regs) regs) -> (r < 16)%N) by (intros r H; apply R; eapply skipn_In_; exact H).
  repeat apply W_app.
  - destruct s as [r|p]; cbn [temp_enc move_to_register] in *; wf.
  - exact M1.
  - apply W_map1; [intros r Hr; wf1|exact RS].
  - destruct (Nat.even _); wf.
  - destruct s as [r|p]; cbn [temp_enc] in *; wf.
  - destruct nl; wf.
  - exact M2.
  - destruct (Nat.even _); wf.
  - apply W_map1; [intros r Hr; wf1|]. intros r H. apply in_rev in H. exact (RS r H).
Qed.

(* memory.rs *)
Lemma W_skip cond body lc : temp_enc cond -> W body -> W (fst (skip_if_zero cond body lc)).
Proof.
  intros T HB. unfold skip_if_zero. cbn [fst]. apply W_app; [apply W_compare_immediate; exact T|].
  apply W_app; [wf|]. apply W_app; [exact HB|wf].
Qed.
Lemma W_ite r (zero_off : bool) th el lc : (r < 16)%N -> W th -> W el ->
  W (fst (if_zero_then_else r (if zero_off then Some REFERENCE_COUNT_OFFSET else None) th el lc)).
Proof.
  intros R H1 H2. unfold if_zero_then_else. cbn [fst]. apply W_app; [destruct zero_off; wf|].
  apply W_app; [exact H2|]. apply W_app; [wf|]. apply W_app; [exact H1|wf].
Qed.
Lemma W_erase_valid r lc : (r < 16)%N -> W (fst (erase_valid_object r lc)).
Proof. intros R. unfold erase_valid_object. apply (W_ite r true); [exact R|wf|wf]. Qed.
Lemma W_erase t lc : temp_enc t -> W (fst (x_erase_block t lc)).
Proof.
  intros T. destruct t as [r|p]; cbn [x_erase_block temp_enc] in *.
  - pose proof (W_erase_valid r lc T) as H. destruct (erase_valid_object r lc) as [c lc1]. apply W_skip; [exact T|exact H].
  - pose proof reg_TEMP as TT.
    pose proof (W_erase_valid TEMP lc TT) as H. destruct (erase_valid_object TEMP lc) as [c lc1]. cbn [fst] in H.
    pose proof (W_skip (XR TEMP) c lc1 TT H) as H2. destruct (skip_if_zero (XR TEMP) c lc1) as [c2 lc2]. cbn [fst] in *.
    apply W_app; [wf|exact H2].
Qed.
Lemma share_fits n : (n < SUBST_MAX)%N -> fits32 (Z.of_N n) = true.
Proof. unfold SUBST_MAX, fits32. intros H. apply andb_true_iff; split; apply Z.leb_le; lia. Qed.
Lemma W_share t n lc : temp_enc t -> (n < SUBST_MAX)%N -> W (fst (x_share_block_n t n lc)).
Proof.
  intros T H. pose proof (share_fits n H) as F. destruct t as [r|p]; cbn [x_share_block_n temp_enc] in *; apply W_skip; try exact T.
  - wf.
  - wf.
Qed.
Lemma W_erase_fields_fold r (R : (r < 16)%N) : forall l acc,
  (forall o, In o l -> (o <= FIELDS_PER_BLOCK)%N) -> W (fst acc) ->
  W (fst (fold_left (fun (acc : list xcode * N) (offset : N) =>
               let '(c, lc) := acc in
               let '(c1, lc1) := x_erase_block (XR TEMP) lc in
               (c ++ [MOVL TEMP r (field_offset Fst offset)] ++ c1, lc1)) l acc)).
Proof.
  induction l as [|o l IH]; intros [c lc] HO H; cbn [fold_left]; [exact H|]. apply IH; [intros; apply HO; right; assumption|].
  pose proof (reg_TEMP : temp_enc (XR TEMP)) as TT.
  pose proof (W_erase (XR TEMP) lc TT) as H2. destruct (x_erase_block (XR TEMP) lc) as [c1 lc1]. cbn [fst] in *.
  assert (O : (o <= FIELDS_PER_BLOCK)%N) by (apply HO; left; reflexivity).
  apply W_app; [exact H|]. apply W_app; [wf|exact H2].
Qed.
Lemma W_erase_fields r lc : (r < 16)%N -> W (fst (erase_fields r lc)).
Proof.
  intros R. unfold erase_fields. apply (W_erase_fields_fold r R); [|exact W_nil].
  intros o H. apply In_nseq in H. lia.
Qed.
Lemma W_acquire t lc : temp_enc t -> W (fst (acquire_block t lc)).
Proof.
  intros T. unfold acquire_block.
  pose proof reg_HEAP as RH. pose proof reg_FREE as RF.
  pose proof (W_erase_fields HEAP lc RH) as H1. destruct (erase_fields HEAP lc) as [ef lc1]. cbn [fst] in H1.
  assert (FO : fits32 (field_offset Fst FIELDS_PER_BLOCK) = true) by (apply field_offset_fits; lia).
  pose proof (W_ite FREE false [MOV FREE HEAP; ADDI FREE (field_offset Fst FIELDS_PER_BLOCK)]
                ([MOVIM HEAP NEXT_ELEMENT_OFFSET 0] ++ ef) lc1 RF) as H2. cbn [fst] in H2.
  destruct (if_zero_then_else FREE None _ _ lc1) as [inner lc2]. cbn [fst] in H2.
  assert (H2' : W inner).
  { apply H2; [wf|apply W_app; [wf|exact H1]]. }
  match goal with |- context [if_zero_then_else HEAP None ?th ?el lc2] =>
    pose proof (W_ite HEAP false th el lc2 RH) as H3; destruct (if_zero_then_else HEAP None th el lc2) as [outer lc3] end.
  cbn [fst] in *. apply W_app.
  - destruct t as [r|p]; cbn [temp_enc] in T; wf.
  - apply H3; [apply W_app; [wf|exact H2']|destruct t as [r|p]; cbn [temp_enc] in T; wf].
Qed.

Lemma tfp_enc p t : temporary_from_position p = Ok t -> temp_enc t.
Proof.
  unfold temporary_from_position. destruct (N.ltb_spec (p + RESERVED) REGISTER_NUM) as [H|H].
  - intros E; inversion E; subst. cbn [temp_enc]. change REGISTER_NUM with 16%N in H. exact H.
  - destruct (N.ltb_spec (p + RESERVED - REGISTER_NUM + RESERVED_SPILLS) SPILL_NUM) as [H2|H2]; [|discriminate].
    intros E; inversion E; subst. cbn [temp_enc]. exact H2.
Qed.
Lemma fresh_enc n c t : x_fresh n c = Ok t -> temp_enc t.
Proof. apply tfp_enc. Qed.

Lemma W_store_field n c blk o code : (blk < 16)%N -> (o <= FIELDS_PER_BLOCK)%N -> store_field n c blk o = Ok code -> W code.
Proof.
  unfold store_field. intros R O H. rinv H. inversion H; subst. pose proof (fresh_enc _ _ _ E) as T.
  destruct x; cbn [temp_enc] in T; wf.
Qed.
Lemma W_load_field n c blk o code : (blk < 16)%N -> (o <= FIELDS_PER_BLOCK)%N -> load_field n c blk o = Ok code -> W code.
Proof.
  unfold load_field. intros R O H. rinv H. inversion H; subst. pose proof (fresh_enc _ _ _ E) as T.
  destruct x; cbn [temp_enc] in T; wf.
Qed.
Lemma W_store_zero blk o : (blk < 16)%N -> (o <= FIELDS_PER_BLOCK)%N -> W (store_zero blk o).
Proof. intros R O. unfold store_zero. wf. Qed.
Lemma W_store_value b rem blk o code : (blk < 16)%N -> (o <= FIELDS_PER_BLOCK)%N -> store_value b rem blk o = Ok code -> W code.
Proof.
  unfold store_value. intros R O H. rinv H. pose proof (W_store_field _ _ _ _ _ R O E) as N1. destruct (bchi b).
  - rinv H. inversion H; subst. apply W_app; [exact N1|exact (W_store_field _ _ _ _ _ R O E0)].
  - rinv H. inversion H; subst. apply W_app; [exact N1|exact (W_store_field _ _ _ _ _ R O E0)].
  - inversion H; subst. apply W_app; [exact N1|apply W_store_zero; assumption].
Qed.
Lemma W_store_zeros n blk : (blk < 16)%N -> (n <= FIELDS_PER_BLOCK)%N -> W (store_zeros n blk).
Proof.
  intros R O. unfold store_zeros. apply Forall_forall. intros c Hc. apply in_flat_map in Hc as (o & Ho & Hc).
  apply In_nseq in Ho. assert (O2 : (o <= FIELDS_PER_BLOCK)%N) by lia.
  pose proof (W_store_zero blk o R O2) as X. unfold W in X. rewrite Forall_forall in X. exact (X c Hc).
Qed.
Lemma W_store_values rem blk (R : (blk < 16)%N) : forall l ff code,
  (ff <= FIELDS_PER_BLOCK)%N -> store_values l rem blk ff = Ok code -> W code.
Proof.
  induction l as [|b l IH]; intros ff code O H; cbn [store_values] in H.
  - inversion H; subst. apply W_store_zeros; assumption.
  - rinv H. inversion H; subst. assert (O1 : (ff - 1 <= FIELDS_PER_BLOCK)%N) by lia.
    apply W_app; [exact (W_store_value _ _ _ _ _ R O1 E)|exact (IH _ _ O1 E0)].
Qed.
Lemma W_load_value b ex blk o m lc c lc' : (blk < 16)%N -> (o <= FIELDS_PER_BLOCK)%N ->
  load_value b ex blk o m lc = Ok (c, lc') -> W c.
Proof.
  unfold load_value. intros R O H. rinv H. pose proof (W_load_field _ _ _ _ _ R O E) as N1.
  assert (SH : forall x2 l, temp_enc x2 -> W (fst (x_share_block_n (XR match x2 with XR r => r | XS _ => TEMP end) 1 l))).
  { intros x2 l T2. apply W_share; [|reflexivity]. destruct x2; [exact T2|exact reg_TEMP]. }
  destruct (bchi b).
  1,2: rinv H; pose proof (W_load_field _ _ _ _ _ R O E0) as N2; pose proof (fresh_enc _ _ _ E1) as T2; destruct m.
  - inversion H; subst. apply W_app; assumption.
  - pose proof (SH x1 lc T2) as S1. destruct (x_share_block_n _ 1 lc) as [c3 lc1]. inversion H; subst.
    apply W_app; [exact N1|apply W_app; [exact N2|exact S1]].
  - inversion H; subst. apply W_app; assumption.
  - pose proof (SH x1 lc T2) as S1. destruct (x_share_block_n _ 1 lc) as [c3 lc1]. inversion H; subst.
    apply W_app; [exact N1|apply W_app; [exact N2|exact S1]].
  - inversion H; subst. exact N1.
Qed.
Lemma W_load_values ex blk m (R : (blk < 16)%N) : forall l ff lc c lc',
  (ff <= FIELDS_PER_BLOCK)%N -> load_values l ex blk ff m lc = Ok (c, lc') -> W c.
Proof.
  induction l as [|b l IH]; intros ff lc c lc' O H; cbn [load_values] in H.
  - inversion H; subst. exact W_nil.
  - rinv H. inversion H; subst. assert (O1 : (ff - 1 <= FIELDS_PER_BLOCK)%N) by lia.
    apply W_app; [exact (W_load_value _ _ _ _ _ _ _ _ R O1 E)|exact (IH _ _ _ _ O1 E0)].
Qed.

Lemma cap_le bp : (FIELDS_PER_BLOCK - bp_n bp <= FIELDS_PER_BLOCK)%N.
Proof. lia. Qed.
Lemma fpb1_le : (FIELDS_PER_BLOCK - 1 <= FIELDS_PER_BLOCK)%N.
Proof. lia. Qed.

Lemma W_store_fields : forall fuel to_store remaining bp lc c lc',
  store_fields fuel to_store remaining bp lc = Ok (c, lc') -> W c.
Proof.
  induction fuel as [|fuel IH]; intros to_store remaining bp lc c lc' H; cbn [store_fields] in H; [discriminate|].
  destruct to_store as [|b0 ts].
  - destruct bp; [rinv H|]; inversion H; subst; [|exact W_nil].
    apply W_load_immediate; [exact (fresh_enc _ _ _ E)|reflexivity].
  - rinv H. pose proof (W_acquire x1 lc (fresh_enc _ _ _ E1)) as A. destruct (acquire_block x1 lc) as [c2 lc2]. rinv H. inversion H; subst.
    cbn [fst] in A.
    assert (N0 : W x) by (destruct bp; [inversion E; exact W_nil|exact (W_store_field _ _ _ _ _ reg_HEAP fpb1_le E)]).
    apply W_app; [exact N0|]. apply W_app; [exact (W_store_values _ _ reg_HEAP _ _ _ (cap_le bp) E0)|].
    apply W_app; [exact A|exact (IH _ _ _ _ _ _ E2)].
Qed.
Lemma W_release m r : (r < 16)%N -> W (match m with Release => release_block r | Share => [] end).
Proof. intros R. destruct m; [unfold release_block; wf|exact W_nil]. Qed.
Lemma W_load_fields : forall fuel to_load existing bp m freed lc c freed' lc',
  load_fields fuel to_load existing bp m freed lc = Ok (c, freed', lc') -> W c.
Proof.
  induction fuel as [|fuel IH]; intros to_load existing bp m freed lc c freed' lc' H; cbn [load_fields] in H; [discriminate|].
  destruct to_load as [|b0 tl].
  - inversion H; subst. exact W_nil.
  - rstep H. destruct x as [[c0 freed0] lc0]. rinv H. pose proof (IH _ _ _ _ _ _ _ _ _ E) as I0.
    pose proof (fresh_enc _ _ _ E0) as TM.
    pose proof slot_TEMP as S0. pose proof reg_TT as RT.
    destruct x as [mr|mp]; cbn [temp_enc] in TM; rinv H; inversion H; subst.
    + assert (N2 : W x) by (destruct bp; [inversion E1; exact W_nil|exact (W_load_field _ _ _ _ _ TM fpb1_le E1)]).
      apply W_app; [exact I0|]. apply W_app; [apply W_release; exact TM|]. apply W_app; [exact N2|].
      exact (W_load_values _ _ _ TM _ _ _ _ _ (cap_le bp) E2).
    + assert (N2 : W x) by (destruct bp; [inversion E1; exact W_nil|exact (W_load_field _ _ _ _ _ RT fpb1_le E1)]).
      apply W_app; [exact I0|]. apply W_app; [destruct freed0; wf|]. apply (W_app [_]); [wf|].
      apply W_app; [apply W_release; exact RT|]. apply W_app; [exact N2|].
      apply W_app; [exact (W_load_values _ _ _ RT _ _ _ _ _ (cap_le bp) E2)|destruct bp; wf].
Qed.
Lemma W_load_register blk to_load existing lc c lc' : (blk < 16)%N ->
  load_register blk to_load existing lc = Ok (c, lc') -> W c.
Proof.
  unfold load_register. intros R H. rstep H. destruct x as [[th f1] lc1]. rstep H. destruct x as [[eb f2] lc2].
  pose proof (W_load_fields _ _ _ _ _ _ _ _ _ _ E) as I1. pose proof (W_load_fields _ _ _ _ _ _ _ _ _ _ E0) as I2.
  assert (K : W (fst (if_zero_then_else blk (Some REFERENCE_COUNT_OFFSET) th ([ADDIM blk REFERENCE_COUNT_OFFSET (-1)] ++ eb) lc2))).
  { apply (W_ite blk true th ([ADDIM blk REFERENCE_COUNT_OFFSET (-1)] ++ eb) lc2 R I1). apply W_app; [wf|exact I2]. }
  replace c with (fst (if_zero_then_else blk (Some REFERENCE_COUNT_OFFSET) th ([ADDIM blk REFERENCE_COUNT_OFFSET (-1)] ++ eb) lc2));
    [exact K|inversion H; reflexivity].
Qed.
Lemma W_x_load to_load existing lc c lc' : x_load to_load existing lc = Ok (c, lc') -> W c.
Proof.
  unfold x_load. intros H. destruct to_load as [|b0 tl].
  - inversion H; subst. exact W_nil.
  - rinv H. pose proof (fresh_enc _ _ _ E) as T. destruct x as [r|p]; cbn [temp_enc] in T.
    + exact (W_load_register _ _ _ _ _ _ T H).
    + rinv H. destruct x as [c1 l1]. cbn [fst snd] in H. inversion H; subst. apply (W_app [_]); [wf|].
      exact (W_load_register _ _ _ _ _ _ reg_TEMP E0).
Qed.
Lemma W_x_store to_store remaining lc c lc' : x_store to_store remaining lc = Ok (c, lc') -> W c.
Proof. unfold x_store. apply W_store_fields. Qed.

Definition Lp (l : string) : Prop := is_hash_label l = false.
Lemma Lp_sub f y : Lp f -> Lp (f +++ "_" +++ y).
Proof. unfold Lp. destruct f as [|c f]; cbn; auto. Qed.
Lemma Lp_app_ s : is_hash_label s = false -> Lp (s +++ "_").
Proof. unfold Lp. destruct s as [|c s]; cbn; auto. Qed.

Section Prog.
Variable p : prog.
Hypothesis PN : plain_names p = true.
Hypothesis PT : plain_types p = true.
Hypothesis XS : xtors_small (ptypes p) = true.

Lemma L_def_p l ps : lookup_label (sigs_of p) l = Some ps -> Lp (show_ident l +++ "_").
Proof.
  unfold lookup_label, sigs_of. cbn [sg_labels].
  destruct (find (fun q => ident_eqb (fst q) l) (map (fun d => (dname d, dctx d)) (pdefs p))) as [q|] eqn:F; [|discriminate].
  intros _. apply find_some in F as [I E]. apply in_map_iff in I as (d & <- & Hd). cbn [fst] in E. apply ident_eqb_eq in E. subst l.
  apply Lp_app_. unfold plain_names in PN. rewrite forallb_forall in PN. specialize (PN d Hd).
  destruct (is_hash_label (show_ident (dname d))); [discriminate|reflexivity].
Qed.
Lemma L_type_p t xs k : type_xtors (sigs_of p) t = Some xs ->
  Lp (type_label t k) /\ forall x, Lp (type_label t k +++ "_" +++ x).
Proof.
  unfold type_xtors, sigs_of. cbn [sg_types]. destruct t as [|n]; [discriminate|].
  destruct (find (fun d => ident_eqb (tname d) n) (ptypes p)) as [d|] eqn:F; [|discriminate]. intros _.
  apply find_some in F as [I E]. apply ident_eqb_eq in E. subst n.
  assert (H : Lp (type_label (Decl (tname d)) k)).
  { unfold type_label. cbn [show_ty]. apply Lp_sub. unfold plain_types in PT. rewrite forallb_forall in PT. specialize (PT d I).
    unfold Lp. destruct (is_hash_label (label_of_type_name (show_ident (tname d)))); [discriminate|reflexivity]. }
  split; [exact H|]. intros x. apply Lp_sub. exact H.
Qed.

Lemma x86_translate_W defs lc code lc' :
  forallb (fun d => lin_check (sigs_of p) (dctx d) (dbody d) && stmt_imm (dbody d)) defs = true ->
  (forall d, In d defs -> In d (pdefs p)) ->
  translate x86_backend (ptypes p) defs lc = Ok (code, lc') -> W code.
Proof.
  intros G SUB H.
  apply (translate_QL x86_backend x86_backend_ok (sigs_of p) temp_enc W Lp W_nil W_app) with (defs := defs) (lc := lc) (lc' := lc');
    cbn [x86_backend x86_backend_with b_temporary_from_position b_temp b_return1 b_label b_mark b_jump b_jump_label b_jump_label_fixed
         b_jcc2 b_jcc1 b_load_immediate b_load_label b_add_and_jump b_arith b_mov b_print b_erase b_share_n b_store b_load
         b_store_temporary b_restore_temporary b_jump_length sg_types sigs_of]; try assumption.
  - exact tfp_enc.
  - vm_compute; reflexivity.
  - vm_compute; reflexivity.
  - intros l _. wf.
  - intros c. exact W_nil.
  - exact W_jump.
  - intros l HL. unfold Lp in HL. wf.
  - intros l HL. unfold Lp in HL. wf.
  - intros s a b l A Bb HL. apply W_app; [apply W_compare; assumption|apply W_jcc; exact HL].
  - intros s a l A HL. apply W_app; [apply W_compare_immediate; assumption|apply W_jcc; exact HL].
  - exact W_load_immediate.
  - intros t k T K. apply W_load_immediate; [exact T|apply tag_lit64; exact K].
  - intros t l T HL. apply W_load_label; assumption.
  - exact W_add_and_jump.
  - intros o t a b T A Bb N1 N2. apply W_arith; auto.
  - intros a A. apply W_arith; [left; discriminate|exact reg_TEMP|exact reg_TEMP|exact A].
  - exact W_mov.
  - intros nl t c T. apply W_print; exact T.
  - intros t l T. apply W_erase; exact T.
  - intros t n l T N. apply W_share; assumption.
  - intros a r l c l'. apply W_x_store.
  - intros a r l c l'. apply W_x_load.
  - exact W_store_temporary.
  - exact W_restore_temporary.
  - intros k. reflexivity.
  - reflexivity.
  - exact L_def_p.
  - exact L_type_p.
  - intros d Hd. destruct (lookup_label_def p d (SUB d Hd)) as [ps E]. exact (L_def_p _ _ E).
Qed.
End Prog.

Lemma W_move_arguments : forall n x, move_arguments n = Ok x -> W x.
Proof.
  intros n x H. destruct n as [|[|[|[|[|[|n]]]]]];
    try (vm_compute in H; inversion H; subst; apply W_forallb; vm_compute; reflexivity).
Qed.
Lemma W_setup n s : setup n = Ok s -> W s.
Proof.
  unfold setup. intros H. rinv H. inversion H; subst. apply (W_app [_; _; _; _; _; _; _; _; _; _]); [|exact (W_move_arguments _ _ E)].
  apply W_forallb. vm_compute. reflexivity.
Qed.
Lemma W_cleanup : W cleanup.
Proof. apply W_forallb. vm_compute. reflexivity. Qed.

(* from the three facts to asm_wf *)
Lemma mem_str_In x l : mem_str x l = true <-> In x l.
Proof.
  unfold mem_str. rewrite existsb_exists. split.
  - intros (y & I & E). apply String.eqb_eq in E. subst. exact I.
  - intros I. exists x. split; [exact I|apply String.eqb_refl].
Qed.
Lemma first_dup_NoDup l : NoDup l -> first_dup l = None.
Proof.
  induction l as [|x r IH]; intros N; [reflexivity|]. inversion N as [|? ? NI N']; subst. cbn [first_dup].
  destruct (mem_str x r) eqn:M; [apply mem_str_In in M; contradiction|]. exact (IH N').
Qed.
Lemma find_none_intro {X} (f : X -> bool) l : (forall x, In x l -> f x = false) -> find f l = None.
Proof.
  induction l as [|x l IH]; intros H; [reflexivity|]. cbn [find]. rewrite (H x (or_introl eq_refl)).
  apply IH. intros y Hy. apply H. right. exact Hy.
Qed.
Lemma defined_labels_filter cs :
  defined_labels cs = filter (fun l => negb (is_hash_label l)) (LabelGen.defs xdefs cs).
Proof.
  unfold defined_labels, LabelGen.defs. induction cs as [|c cs IH]; [reflexivity|]. cbn [flat_map]. rewrite filter_app, IH. f_equal.
  destruct c; try reflexivity. cbn [xdefs filter]. destruct (is_hash_label l); reflexivity.
Qed.
Lemma W_parts body :
  W body ->
  (forall l, In l (flat_map referenced body) -> is_hash_label l = false) /\
  (forall l, In l (calls body) -> l = "print_i64" \/ l = "println_i64") /\
  externs body = [] /\ (forall c, In c body -> instr_wf c = true).
Proof.
  intros H. unfold W in H. rewrite Forall_forall in H. repeat split.
  - intros l Hl. apply in_flat_map in Hl as (c & Hc & Hl). specialize (H c Hc). unfold cok in H.
    apply andb_true_iff in H as [H _]. apply andb_true_iff in H as [_ H]. rewrite forallb_forall in H. specialize (H l Hl).
    destruct (is_hash_label l); [discriminate|reflexivity].
  - intros l Hl. unfold calls in Hl. apply in_flat_map in Hl as (c & Hc & Hl). specialize (H c Hc).
    destruct c; cbn [In] in Hl; try contradiction. destruct Hl as [<-|[]]. unfold cok in H.
    apply andb_true_iff in H as [_ H]. apply orb_true_iff in H as [H|H]; apply String.eqb_eq in H; auto.
  - unfold externs. induction body as [|c body IH]; [reflexivity|]. cbn [flat_map].
    rewrite IH by (intros; apply H; right; assumption). pose proof (H c (or_introl eq_refl)) as Hc.
    destruct c; try reflexivity. unfold cok in Hc. rewrite andb_false_r in Hc. discriminate.
  - intros c Hc. specialize (H c Hc). unfold cok in H. apply andb_true_iff in H as [H _]. apply andb_true_iff in H as [H _]. exact H.
Qed.

Lemma asm_wf_intro body :
  W body ->
  NoDup (LabelGen.defs xdefs (preamble ++ body)) ->
  incl (LabelGen.refs referenced (preamble ++ body)) (LabelGen.defs xdefs (preamble ++ body)) ->
  ~ In "print_i64" (LabelGen.defs xdefs (preamble ++ body)) ->
  ~ In "println_i64" (LabelGen.defs xdefs (preamble ++ body)) ->
  asm_wf (preamble ++ body) = None.
Proof.
  intros HW ND RF P1 P2. destruct (W_parts body HW) as (NH & CL & EX & IW).
  set (cs := preamble ++ body) in *.
  assert (DL : forall l, In l (defined_labels cs) <-> In l (LabelGen.defs xdefs cs) /\ is_hash_label l = false).
  { intros l. rewrite defined_labels_filter, filter_In. destruct (is_hash_label l); cbn; intuition discriminate. }
  assert (RB : flat_map referenced cs = flat_map referenced body) by (unfold cs; rewrite flat_map_app; reflexivity).
  assert (CB : calls cs = calls body) by (unfold cs, calls; rewrite flat_map_app; reflexivity).
  assert (EB : externs cs = ["print_i64"; "println_i64"]).
  { unfold cs, externs. rewrite flat_map_app. fold (externs body). rewrite EX. reflexivity. }
  unfold asm_wf.
  rewrite first_dup_NoDup by (rewrite defined_labels_filter; apply NoDup_filter; exact ND).
  rewrite find_none_intro.
  2:{ intros l Hl. apply negb_false_iff. apply mem_str_In. apply DL. split.
      - apply RF. exact Hl.
      - apply NH. rewrite <- RB. exact Hl. }
  rewrite find_none_intro.
  2:{ intros l Hl. rewrite CB in Hl. apply andb_false_iff. left. apply negb_false_iff. apply mem_str_In. rewrite EB.
      destruct (CL l Hl) as [-> | ->]; cbn; auto. }
  rewrite find_none_intro.
  2:{ intros l Hl. rewrite EB in Hl. destruct (mem_str l (defined_labels cs)) eqn:M; [|reflexivity]. exfalso.
      apply mem_str_In in M. apply DL in M as [M _]. destruct Hl as [<-|[<-|[]]]; contradiction. }
  rewrite find_none_intro; [reflexivity|].
  intros c Hc. apply negb_false_iff. unfold cs in Hc. apply in_app_or in Hc as [Hc|Hc]; [|exact (IW c Hc)].
  cbn in Hc. repeat (destruct Hc as [<-|Hc]; [reflexivity|]). contradiction.
Qed.

(* the two print routines are never generated labels nor definition labels *)
Lemma print_name_not_pr g l : l = "print_i64" \/ l = "println_i64" -> pr g <> l.
Proof.
  intros L E. destruct g as [s|k|T k|T k X].
  - pose proof (pr_def_ends s) as H. rewrite E in H. destruct L as [-> | ->]; discriminate.
  - destruct L as [-> | ->]; discriminate.
  - pose proof (pr_tl_has_usd T k) as H. rewrite E in H. destruct L as [-> | ->]; discriminate.
  - pose proof (pr_cl_has_usd T k X) as H. rewrite E in H. destruct L as [-> | ->]; discriminate.
Qed.
Lemma print_not_pr g : pr g <> "print_i64".
Proof. apply print_name_not_pr. now left. Qed.
Lemma println_not_pr g : pr g <> "println_i64".
Proof. apply print_name_not_pr. now right. Qed.

Lemma plain_names_same p : plain_names_b p = plain_names p.
Proof. reflexivity. Qed.
Lemma plain_types_same p : plain_types_b p = plain_types p.
Proof. reflexivity. Qed.

Lemma compile_translate {Code Temp} (B : backend Code Temp) p lc c n lc' :
  compile B p lc = Ok (c, n, lc') -> translate B (ptypes p) (pdefs p) lc = Ok (c, lc').
Proof.
  unfold compile. destruct (pdefs p) as [|d0 ds]; [discriminate|]. intros H. rstep H. destruct x as [c0 l1].
  cbn [fst snd] in H. inversion H; subst. exact E.
Qed.

Theorem x86_compile_asm_wf p lc cs n lc' :
  labels_guard p = true -> calls_guard p = true -> lin_check_prog p = true ->
  plain_names p = true -> plain_types p = true -> imm_guard p = true ->
  x86_compile p lc = Ok (cs, n, lc') -> asm_wf cs = None.
Proof.
  intros G1 G2 LIN PN PT IG H.
  destruct (x86_routine_labels p lc cs n lc' G1 G2 H) as (ND & RF & _).
  unfold x86_compile, x86_compile_with, into_x86_64_routine in H. rstep H. destruct x as [[is n0] l0]. rinv H. inversion H; subst. clear H.
  match goal with E0 : rbind _ _ = Ok _ |- _ => rename E0 into ES end. rstep ES. rename E0 into E1.
  match type of ES with Ok ?t = Ok ?v => assert (EV : v = t) by congruence; subst v; clear ES end.
  unfold imm_guard in IG. apply andb_true_iff in IG as [IG XS].
  assert (GD : forallb (fun d => lin_check (sigs_of p) (dctx d) (dbody d) && stmt_imm (dbody d)) (pdefs p) = true).
  { apply forallb_forall. intros d Hd. unfold lin_check_prog in LIN. rewrite forallb_forall in LIN, IG.
    specialize (LIN d Hd). specialize (IG d Hd). unfold lin_check_def in LIN. rewrite LIN, IG. reflexivity. }
  clear LIN IG.
  (* the labels of the body *)
  pose proof (compile_translate _ _ _ _ _ _ E) as E0.
  unfold labels_guard in G1.
  destruct (translate_unique x86_backend xdefs referenced x86_labels_ok _ _ _ _ _ G1 E0) as (_ & _ & I).
  destruct (LabelsX86.nolab_plain _ (nolab_setup_x86 _ _ E1)) as [D0 R0].
  assert (DE : LabelGen.defs xdefs (preamble ++ x ++ is ++ cleanup) = "asm_main" :: LabelGen.defs xdefs is ++ ["cleanup"]).
  { rewrite !(defs_app xdefs), D0. reflexivity. }
  assert (NP : forall s, (forall g, pr g <> s) -> s <> "asm_main" -> s <> "cleanup" ->
                         ~ In s (LabelGen.defs xdefs (preamble ++ x ++ is ++ cleanup))).
  { intros s NG N1 N2 X. rewrite DE in X. destruct X as [X|X]; [congruence|]. apply in_app_or in X as [X|[X|[]]]; [|congruence].
    destruct (I _ X) as (g & Eg & _). symmetry in Eg. exact (NG g Eg). }
  apply asm_wf_intro; [|exact ND|exact RF|apply NP; [exact print_not_pr|discriminate|discriminate]
                                          |apply NP; [exact println_not_pr|discriminate|discriminate]].
  apply W_app; [exact (W_setup _ _ E1)|]. apply W_app; [|exact W_cleanup].
  eapply (x86_translate_W p PN PT XS (pdefs p)); [exact GD|auto|exact E0].
Qed.

(* code_small from the size bound of C19 *)
Lemma size_of_le cs : (size_of cs <= 16 * Z.of_N (AxSize.len cs))%Z.
Proof.
  unfold AxSize.len. induction cs as [|c cs IH]; [cbn; lia|]. cbn [size_of List.length].
  assert (isize c <= 16)%Z by (destruct c; cbn; lia). lia.
Qed.
Lemma small_arith (s : Z) (l c : N) :
  (l <= 30 + 79 * c)%N -> (c <= SIZE_MAX)%N -> (s <= 16 * Z.of_N l)%Z -> (s < 4611686018427387904 - CODE_BASE)%Z.
Proof. unfold SIZE_MAX, CODE_BASE. lia. Qed.
Lemma size_guard_le p : size_guard p = true -> (cg_bound_defs (pdefs p) <= SIZE_MAX)%N.
Proof. intros SG. apply N.leb_le. exact SG. Qed.
Lemma x86_K_79 : x86_K = 79%N.
Proof. reflexivity. Qed.
Lemma x86_bound_eq p : x86_bound p = (30 + x86_K * cg_bound_defs (pdefs p))%N.
Proof. reflexivity. Qed.
Theorem x86_compile_code_small p lc cs n lc' :
  lin_check_prog p = true -> size_guard p = true ->
  x86_compile p lc = Ok (cs, n, lc') -> code_small cs = true.
Proof.
  intros LIN SG H. pose proof (x86_compile_size p lc cs n lc' (lin_check_prog_sub_wf p LIN) H) as B.
  rewrite x86_bound_eq, x86_K_79 in B.
  apply Z.ltb_lt. exact (small_arith _ _ _ B (size_guard_le p SG) (size_of_le cs)).
Qed.
