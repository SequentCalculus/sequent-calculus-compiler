(* C03, semantic preservation: whole runs and whole programs.

   [sim_crun]: related configurations, a source run that meets no kind clash and whose outcome is an
   exit value or undefined arithmetic ([good_end]: OExit or OUndef; wider than `defined` of
   Sem/AxSem.v, which is exit only) => the focused program reaches the same observation (prints in
   order included).  Nothing is said about stuck and out-of-fuel runs.
   [focus_preserves_uniquified]: the same for `focus` applied to every definition of a program whose
   identifiers are all <= max_id (what `uniquify` guarantees), both started on the entry definition.
   [good_end], the outcomes the theorems speak about, is defined here. *)
From Coq Require Import List ZArith NArith String Bool Lia.
From SCC Require Import Base.Sexp Lang.CoreSyn Sem.AxSem Sem.CoreSem Model.Backend Model.Uniquify Model.Focus
     Model.FocusCheck Proof.FocusKont Proof.FocusRel Proof.FocusMono Proof.FocusSim Proof.FocusStep Proof.FocusMain.
From SCC Require Import Model.FocusGuard.
Import ListNotations.
Open Scope list_scope.
Open Scope N_scope.

(* the runs that the preservation theorems of Props/C03.v speak about (their hypothesis on the source
   run): the outcome is an exit value or undefined arithmetic, not stuck and not out of fuel *)
Definition good_end (o : outcome) : Prop := match o with OExit _ | OUndef _ => True | _ => False end.

Section Run.
Variables (ps qt : cprog) (M0 : N).
Hypothesis Hcod : forall ty, is_codata qt ty = is_codata ps ty.
Hypothesis Hdefs : forall f d, cfind_def ps f = Some d ->
  exists b' mc m2, focus_stmt (cdbody d) mc = Ok (b', m2) /\ M0 <= mc /\ ids_le_stmt M0 (cdbody d) = true /\
                   cfind_def qt f = Some (mkcd (cdname d) (cdctx d) (fs2c_stmt b')).

Theorem sim_crun : forall fuel c c' out,
  crel ps M0 c c' -> clash_free ps fuel c = true -> good_end (snd (crun fuel ps c out)) ->
  exists fuel', crun fuel' qt c' out = crun fuel ps c out.
Proof.
  induction fuel as [|f IH]; intros c c' out R CF G.
  - simpl in G. contradiction.
  - simpl in CF. apply andb_true_iff in CF. destruct CF as [CL CF]. apply negb_true_iff in CL.
    pose proof (sim_step ps qt M0 Hcod Hdefs c c' R CL) as S.
    simpl in G |- *. destruct (cstep ps c) as [c2|nl z c2|o] eqn:ST; simpl in S.
    + destruct S as (c2' & (n & Hn) & R2).
      destruct (IH c2 c2' out R2 CF G) as (f2 & E2).
      exists (n + f2)%nat. rewrite Hn. exact E2.
    + destruct S as (c2' & (n & Hn) & R2).
      destruct (IH c2 c2' ((nl, z) :: out) R2 CF G) as (f2 & E2).
      exists (n + f2)%nat. rewrite Hn. exact E2.
    + simpl in G. destruct o; try contradiction; destruct S as (n & Hn); exists (S n + 0)%nat; apply Hn.
Qed.
End Run.

Lemma focus_defs_find : forall M0 f ds mc ds' m2 d,
  maprs focus_def ds mc = Ok (ds', m2) -> M0 <= mc -> forallb (ids_le_def M0) ds = true ->
  find (fun d => cident_eqb (cdname d) f) ds = Some d ->
  exists b' mcd m2d, focus_stmt (cdbody d) mcd = Ok (b', m2d) /\ M0 <= mcd /\ ids_le_stmt M0 (cdbody d) = true /\
    find (fun d => cident_eqb (cdname d) f) (map fs2c_def ds') = Some (mkcd (cdname d) (cdctx d) (fs2c_stmt b')).
Proof.
  induction ds as [|d0 ds IH]; intros mc ds' m2 d F L IA FD; simpl in FD; [discriminate|].
  simpl in F. rb2 F d0' m1 F0. rb2 F r' m3 F1. okinv F.
  unfold focus_def in F0. rb2 F0 b0 m4 FB. okinv F0.
  simpl in IA. apply andb_true_iff in IA. destruct IA as [I0 IA].
  simpl. unfold fs2c_def at 1. simpl.
  destruct (cident_eqb (cdname d0) f) eqn:Q.
  - okinv FD. exists b0, mc, m1. repeat split; auto.
    unfold ids_le_def in I0. apply andb_true_iff in I0. tauto.
  - apply (IH m1 r' m2 d F1); auto. apply focus_stmt_mono in FB. lia.
Qed.

Lemma Vs_ints : forall ps M0 (zs : list Z), Vs ps M0 (map (fun z => BP (PInt z)) zs) (map (fun z => BP (PInt z)) zs).
Proof. induction zs; simpl; constructor; auto. constructor. Qed.

Theorem focus_preserves_uniquified : forall p1 ds m args fuel,
  maprs focus_def (cpdefs p1) (cpmax p1) = Ok (ds, m) ->
  forallb (ids_le_def (cpmax p1)) (cpdefs p1) = true ->
  clash_free_prog fuel p1 args = true ->
  good_end (snd (run_core fuel p1 args)) ->
  exists fuel', run_fs fuel' (mkfsp ds (cpdata p1) (cpcodata p1) m) args = run_core fuel p1 args.
Proof.
  intros p1 ds m args fuel F IA CF G.
  set (q := mkfsp ds (cpdata p1) (cpcodata p1) m).
  assert (Hcod : forall ty, is_codata (fs2c_prog q) ty = is_codata p1 ty) by reflexivity.
  assert (Hdefs : forall f d, cfind_def p1 f = Some d ->
            exists b' mc m2, focus_stmt (cdbody d) mc = Ok (b', m2) /\ cpmax p1 <= mc /\
              ids_le_stmt (cpmax p1) (cdbody d) = true /\
              cfind_def (fs2c_prog q) f = Some (mkcd (cdname d) (cdctx d) (fs2c_stmt b'))).
  { intros f d FD. unfold cfind_def in *. simpl. eapply focus_defs_find; eauto. lia. }
  unfold run_fs, run_core, clash_free_prog in *.
  destruct (cpdefs p1) as [|d0 dr] eqn:DP; [simpl in G; contradiction|].
  simpl in F. rb2 F d0' m1 F0. rb2 F r' m3 F1. okinv F.
  unfold focus_def in F0. rb2 F0 b0 m4 FB. okinv F0.
  simpl. unfold centry_env in *. simpl.
  destruct (forallb (fun b => match cbchi b with CPrd => true | CCns => false end) (cdctx d0)); [|simpl in G; contradiction].
  destruct (cbind (cvars (cdctx d0)) (map (fun z => BP (PInt z)) args) []) as [e|] eqn:B; [|simpl in G; contradiction].
  simpl in IA. apply andb_true_iff in IA. destruct IA as [I0 IA].
  unfold ids_le_def in I0. apply andb_true_iff in I0. destruct I0 as [_ I0].
  destruct (cbind_rel p1 (cpmax p1) _ _ _ _ _ _ (Vs_ints p1 (cpmax p1) args) (ER_nil p1 (cpmax p1)) B) as (e1' & B' & RE).
  rewrite B in B'. okinv B'.
  eapply (sim_crun p1 (fs2c_prog q) (cpmax p1) Hcod Hdefs); eauto.
  eapply CR_run; eauto. lia.
Qed.
