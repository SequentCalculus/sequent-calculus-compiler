(* C17: the label counter only renumbers generated labels.
   The Rust label counter is a process-global static: what was compiled before in the same process
   shifts every generated number.  [translate_shift]: started at counter b instead of a, `translate`
   returns the same code with every label renamed by rho, where rho maps the text of a generated label
   with number k > a to the text with number k - a + b and fixes definition labels and `cleanup`; the
   final counter is shifted likewise, errors are the same.  For every back end whose emitters commute
   with the renaming ([shift_ok]). *)
From Coq Require Import List NArith String Ascii Bool Lia.
From SCC Require Import Base.Sexp Lang.AxSyn Model.ParMoves Model.Backend Sem.LabelGuard
  Proof.LinBasics Proof.LabelStrings Proof.BackendInv Proof.LabelGen.
Import ListNotations.
Local Open Scope string_scope.
Local Open Scope list_scope.

Section Shift.
Context {Code Temp : Type} (B : backend Code Temp).
Variables (cdefs crefs : Code -> list string).
Hypothesis LO : labels_ok B cdefs crefs.
Variable cmap : (string -> string) -> Code -> Code.      (* rename the labels of one instruction *)
Variable rho : string -> string.
Variables a b : N.
Definition sh (lc : N) : N := (lc - a + b)%N.
Notation rn := (map (cmap rho)).
Definition shp (p : list Code * N) : list Code * N := (rn (fst p), sh (snd p)).
Definition shr (r : res (list Code * N)) : res (list Code * N) :=
  match r with Ok p => Ok (shp p) | Err m => Err m end.

Record shift_ok : Prop := {
  so_label : forall l, cmap rho (b_label B l) = b_label B (rho l);
  so_mark : forall c, rn (b_mark B c) = b_mark B c;
  so_jump : forall t, rn (b_jump B t) = b_jump B t;
  so_jump_label : forall l, rn (b_jump_label B l) = b_jump_label B (rho l);
  so_jump_label_fixed : forall l, rn (b_jump_label_fixed B l) = b_jump_label_fixed B (rho l);
  so_jcc2 : forall s x y l, rn (b_jcc2 B s x y l) = b_jcc2 B s x y (rho l);
  so_jcc1 : forall s x l, rn (b_jcc1 B s x l) = b_jcc1 B s x (rho l);
  so_load_immediate : forall t i, rn (b_load_immediate B t i) = b_load_immediate B t i;
  so_load_label : forall t l, rn (b_load_label B t l) = b_load_label B t (rho l);
  so_add_and_jump : forall t i, rn (b_add_and_jump B t i) = b_add_and_jump B t i;
  so_arith : forall o t x y, rn (b_arith B o t x y) = b_arith B o t x y;
  so_mov : forall t s, rn (b_mov B t s) = b_mov B t s;
  so_print : forall nl t c, rn (b_print B nl t c) = b_print B nl t c;
  so_store_temporary : forall t f, rn (b_store_temporary B t f) = b_store_temporary B t f;
  so_restore_temporary : forall t f, rn (b_restore_temporary B t f) = b_restore_temporary B t f;
  so_erase : forall t lc, (a <= lc)%N -> b_erase B t (sh lc) = shp (b_erase B t lc);
  so_share_n : forall t n lc, (a <= lc)%N -> b_share_n B t n (sh lc) = shp (b_share_n B t n lc);
  so_store : forall x y lc, (a <= lc)%N -> b_store B x y (sh lc) = shr (b_store B x y lc);
  so_load : forall x y lc, (a <= lc)%N -> b_load B x y (sh lc) = shr (b_load B x y lc);
}.
Hypothesis SO : shift_ok.

Variables okS okX : string -> bool.
Hypothesis rho_gen : forall g, in_univ okS okX g -> is_gen g = true -> (a < key g)%N -> rho (pr g) = pr (with_key sh g).
Hypothesis rho_def : forall s, lower_first s = true -> rho (s ++ "_")%string = (s ++ "_")%string.
Hypothesis rho_cleanup : rho "cleanup" = "cleanup".

(* the guard: names as in the label theorems, and calls go to lower-case names *)
Definition shift_guard (s : stmt) : bool :=
  stmt_check (fun l => lower_first (show_ident l)) (sw_ok okS okX) s.
Lemma guard_names s : shift_guard s = true -> names_ok okS okX s = true.
Proof.
  unfold shift_guard, names_ok. induction s using stmt_ind2; cbn [stmt_check]; intros G; auto.
  - change (stmt_check (fun l => lower_first (show_ident l)) (sw_ok okS okX) (Switch v t cls) = true) in G.
    rewrite stmt_check_switch in G. change (stmt_check (fun _ => true) (sw_ok okS okX) (Switch v t cls) = true).
    rewrite stmt_check_switch. apply andb_true_iff in G as [G1 G2]. rewrite G1. cbn [andb].
    apply forallb_forall. intros c Hc. rewrite forallb_forall in G2. rewrite Forall_forall in H. apply (H c Hc), G2, Hc.
  - change (stmt_check (fun l => lower_first (show_ident l)) (sw_ok okS okX) (Create v t env cls s) = true) in G.
    rewrite stmt_check_create in G. change (stmt_check (fun _ => true) (sw_ok okS okX) (Create v t env cls s) = true).
    rewrite stmt_check_create. apply andb_true_iff in G as [G G3]. apply andb_true_iff in G as [G1 G2]. rewrite G1, (IHs G3). cbn [andb].
    rewrite andb_true_r. apply forallb_forall. intros c Hc. rewrite forallb_forall in G2. rewrite Forall_forall in H. apply (H c Hc), G2, Hc.
  - apply andb_true_iff in G as [G1 G2]. rewrite (IHs1 G1), (IHs2 G2). reflexivity.
Qed.

Lemma shr_bind (e e' : res (list Code * N)) (f f' : list Code * N -> res (list Code * N)) :
  e' = shr e -> (forall c l, e = Ok (c, l) -> f' (rn c, sh l) = shr (f (c, l))) -> rbind e' f' = shr (rbind e f).
Proof. intros -> H. destruct e as [[c l]|m]; cbn [shr rbind shp fst snd]; [apply H; reflexivity|reflexivity]. Qed.
Lemma same_bind {X} (e : res X) (f f' : X -> res (list Code * N)) :
  (forall x, e = Ok x -> f' x = shr (f x)) -> rbind e f' = shr (rbind e f).
Proof. intros H. destruct e as [x|m]; cbn [rbind shr]; [apply H; reflexivity|reflexivity]. Qed.
Lemma shr_ok c l : shr (Ok (c, l)) = Ok (rn c, sh l).
Proof. reflexivity. Qed.
Lemma sh_add lc k : (a <= lc)%N -> sh (lc + k) = (sh lc + k)%N.
Proof. unfold sh. lia. Qed.
Lemma sh_ge lc : (a <= lc)%N -> (b <= sh lc)%N.
Proof. unfold sh. lia. Qed.

Lemma rn_flat {X} (f : X -> list Code) l : (forall x, rn (f x) = f x) -> rn (flat_map f l) = flat_map f l.
Proof. intros H. induction l as [|x l IH]; [reflexivity|]. cbn [flat_map]. rewrite map_app, H, IH. reflexivity. Qed.
Lemma rn_exchange tm c1 c2 c : code_exchange B tm c1 c2 = Ok c -> rn c = c.
Proof.
  unfold code_exchange, parallel_moves_code. intros H. rinv H. destruct (spanning_forest _ _ _ _); [|discriminate]. inversion H; subst.
  apply rn_flat. intros r. unfold emit_root. apply rn_flat. intros i.
  destruct i; cbn [emit_pinstr]; [apply (so_mov SO)|apply (so_store_temporary SO)|apply (so_restore_temporary SO)].
Qed.

Lemma urc_shift v context n lc : (a <= lc)%N ->
  update_reference_count B v context n (sh lc) = shr (update_reference_count B v context n lc).
Proof.
  intros L. unfold update_reference_count. apply same_bind. intros t _. destruct n as [|[|n]].
  - rewrite (so_erase SO) by exact L. destruct (b_erase B t lc). reflexivity.
  - reflexivity.
  - rewrite (so_share_n SO) by exact L. destruct (b_share_n B t (N.of_nat (S n)) lc). reflexivity.
Qed.
Lemma cwc_shift tm context : forall lc, (a <= lc)%N ->
  code_weakening_contraction B tm context (sh lc) = shr (code_weakening_contraction B tm context lc).
Proof.
  induction tm as [|[bd targets] r IH]; intros lc L; cbn [code_weakening_contraction]; [reflexivity|].
  assert (K : forall c1 lc1, update_reference_count B (bvar bd) context (List.length targets) lc = Ok (c1, lc1) -> (a <= lc1)%N).
  { intros c1 lc1 E. destruct (urc_inv B cdefs crefs LO okS okX _ _ _ _ _ _ E) as [L1 _]. lia. }
  destruct (bchi bd); [| |apply IH; exact L].
  all: apply shr_bind; [apply urc_shift; exact L|]; intros c1 lc1 E; apply shr_bind; [apply IH; apply (K _ _ E)|];
    intros c2 lc2 _; rewrite shr_ok, map_app; reflexivity.
Qed.

Definition IHsh (types : list tydecl) (s : stmt) : Prop :=
  shift_guard s = true -> forall context lc, (a <= lc)%N ->
  code_statement B types s context (sh lc) = shr (code_statement B types s context lc).

Lemma stmt_mono types s context lc c lc' :
  shift_guard s = true -> code_statement B types s context lc = Ok (c, lc') -> (lc <= lc')%N.
Proof. intros G H. destruct (code_statement_defs B cdefs crefs LO okS okX types s (guard_names s G) _ _ _ _ H) as [L _]. exact L. Qed.

(* the labels of a Switch / Create whose number is k > a *)
Lemma rho_type_label t k : okS (tyS t) = true -> lower_first (tyS t) = false -> (a < k)%N ->
  rho (type_label t k) = type_label t (sh k).
Proof. intros H1 H2 K. rewrite !type_label_pr. rewrite rho_gen; [reflexivity|split; assumption|reflexivity|exact K]. Qed.
Lemma rho_clause_label t k x : okS (tyS t) = true -> lower_first (tyS t) = false -> okX (show_ident x) = true -> (a < k)%N ->
  rho (type_label t k +++ "_" +++ show_ident x) = type_label t (sh k) +++ "_" +++ show_ident x.
Proof. intros H1 H2 H3 K. rewrite !clause_label_pr. rewrite rho_gen; [reflexivity|repeat split; assumption|reflexivity|exact K]. Qed.

Lemma table_shift cls fresh fresh' :
  (forall cl, In cl cls -> rho (fresh +++ "_" +++ show_ident (cl_xtor cl)) = fresh' +++ "_" +++ show_ident (cl_xtor cl)) ->
  rn (code_table B cls fresh) = code_table B cls fresh'.
Proof.
  unfold code_table. induction cls as [|cl r IH]; intros H; [reflexivity|]. cbn [flat_map]. rewrite map_app, (so_jump_label_fixed SO).
  rewrite H by (left; reflexivity). rewrite IH; [reflexivity|]. intros c Hc. apply H. right. exact Hc.
Qed.

Lemma loop_shift types fresh fresh' ldf ctxf :
  (forall cx lc, (a <= lc)%N -> ldf cx (sh lc) = shr (ldf cx lc)) ->
  (forall cx lc c lc', ldf cx lc = Ok (c, lc') -> (lc <= lc')%N) ->
  forall cls,
  Forall (fun cl => IHsh types (cl_body cl)) cls ->
  forallb (fun cl => shift_guard (cl_body cl)) cls = true ->
  (forall cl, In cl cls -> rho (fresh +++ "_" +++ show_ident (cl_xtor cl)) = fresh' +++ "_" +++ show_ident (cl_xtor cl)) ->
  forall lc, (a <= lc)%N ->
  cl_loop B types fresh' ldf ctxf cls (sh lc) = shr (cl_loop B types fresh ldf ctxf cls lc).
Proof.
  intros LD LM. induction cls as [|[[x cx] body] r IH]; intros F G R lc L; cbn [cl_loop]; [reflexivity|].
  inversion F as [|? ? Fb Fr]; subst. cbn [forallb cl_body snd] in G. apply andb_true_iff in G as [G1 G2].
  apply shr_bind; [apply LD; exact L|]. intros cl lc1 E1. pose proof (LM _ _ _ _ E1) as L1.
  apply shr_bind; [apply (Fb G1); lia|]. intros cb lc2 E2. pose proof (stmt_mono _ _ _ _ _ _ G1 E2) as L2.
  apply shr_bind; [apply (IH Fr G2); [intros c Hc; apply R; right; exact Hc|lia]|]. intros cr lc3 _.
  pose proof (R (x, cx, body) (or_introl eq_refl)) as Rx. cbn [cl_xtor fst] in Rx.
  rewrite shr_ok, !map_app. cbn [map]. rewrite (so_label SO), Rx. reflexivity.
Qed.

Lemma wrap_shift (e e' : res (list Code * N)) context :
  e' = shr e ->
  rbind e' (fun body => Ok (b_mark B context ++ fst body, snd body))
  = shr (rbind e (fun body => Ok (b_mark B context ++ fst body, snd body))).
Proof.
  intros ->. destruct e as [[c l]|m]; cbn [shr rbind shp fst snd]; [|reflexivity]. unfold shp; cbn [fst snd]. rewrite map_app, (so_mark SO). reflexivity.
Qed.

Definition shc (r : res (list Code)) : res (list Code) := match r with Ok c => Ok (rn c) | Err m => Err m end.
Lemma shc_bind (e e' : res (list Code)) (f f' : list Code -> res (list Code * N)) :
  e' = shc e -> (forall c, e = Ok c -> f' (rn c) = shr (f c)) -> rbind e' f' = shr (rbind e f).
Proof. intros -> H. destruct e as [c|m]; cbn [shc rbind shr]; [apply H; reflexivity|reflexivity]. Qed.
Lemma sw_head_shift (n : nat) context v fresh :
  (if Nat.leb n 1 then Ok []
   else dor tmpv <- variable_temporary B Snd context (idn v);
        Ok (b_load_label B (b_temp B) (rho fresh) ++ b_arith B Sum (b_temp B) (b_temp B) tmpv ++ b_jump B (b_temp B)))
  = shc (if Nat.leb n 1 then Ok []
         else dor tmpv <- variable_temporary B Snd context (idn v);
              Ok (b_load_label B (b_temp B) fresh ++ b_arith B Sum (b_temp B) (b_temp B) tmpv ++ b_jump B (b_temp B))).
Proof.
  destruct (Nat.leb n 1); [reflexivity|]. destruct (variable_temporary B Snd context (idn v)); [|reflexivity].
  cbn [rbind shc]. rewrite !map_app, (so_load_label SO), (so_arith SO), (so_jump SO). reflexivity.
Qed.
Lemma ifc_head_shift so x (b0 : option ident) context fresh :
  match b0 with
  | Some b1 => dor tb <- variable_temporary B Snd context (idn b1); Ok (b_jcc2 B so x tb (rho fresh))
  | None => Ok (b_jcc1 B so x (rho fresh))
  end
  = shc (match b0 with
         | Some b1 => dor tb <- variable_temporary B Snd context (idn b1); Ok (b_jcc2 B so x tb fresh)
         | None => Ok (b_jcc1 B so x fresh)
         end).
Proof.
  destruct b0 as [b1|]; [destruct (variable_temporary B Snd context (idn b1)); [|reflexivity]|]; cbn [rbind shc];
    rewrite ?(so_jcc2 SO), ?(so_jcc1 SO); reflexivity.
Qed.

Ltac sb := apply same_bind; intros.
Ltac fin := rewrite shr_ok; repeat rewrite map_app;
  rewrite ?(so_jump SO), ?(so_load_immediate SO), ?(so_add_and_jump SO), ?(so_arith SO), ?(so_mov SO), ?(so_print SO),
          ?(so_jump_label SO), ?(so_jcc1 SO), ?(so_jcc2 SO), ?(so_load_label SO).

Theorem code_statement_shift types : forall s, IHsh types s.
Proof.
  induction s using stmt_ind2; intros G context lc L;
    try match goal with F : Forall _ _ |- _ => rename F into FC end.
  - (* Substitute *)
    cbn [code_statement]. apply wrap_shift. cbn [shift_guard stmt_check] in G.
    apply shr_bind; [apply cwc_shift; exact L|]. intros c1 lc1 E1.
    destruct (cwc_inv B cdefs crefs LO okS okX _ _ _ _ _ E1) as [L1 _].
    sb. apply shr_bind; [apply (IHs G); lia|]. intros c3 lc3 _. fin. rewrite (rn_exchange _ _ _ _ H). reflexivity.
  - (* Call *)
    cbn [code_statement]. apply wrap_shift. fin. cbn [shift_guard stmt_check] in G. rewrite rho_def by exact G. reflexivity.
  - (* Let *)
    cbn [code_statement]. apply wrap_shift. cbn [shift_guard stmt_check] in G.
    sb. sb. sb. destruct x1 as [rest arguments].
    apply shr_bind; [apply (so_store SO); exact L|]. intros c1 lc1 E1. destruct (lo_store LO _ _ _ _ _ E1) as [L1 _].
    sb. apply shr_bind; [apply (IHs G); lia|]. intros c3 lc3 _. fin. reflexivity.
  - (* Switch *)
    rewrite !code_switch_eq. apply wrap_shift. cbv zeta.
    unfold shift_guard in G. rewrite stmt_check_switch in G. apply andb_true_iff in G as [SW G].
    destruct (sw_ok_inv okS okX _ _ SW) as (OS & LF & OX & _).
    assert (K : (a < lc + 1)%N) by lia. rewrite <- (sh_add lc 1 L).
    pose proof (rho_type_label t (lc + 1) OS LF K) as RT.
    assert (RC : forall cl, In cl cls -> rho (type_label t (lc + 1) +++ "_" +++ show_ident (cl_xtor cl))
                                     = type_label t (sh (lc + 1)) +++ "_" +++ show_ident (cl_xtor cl)).
    { intros cl Hc. apply rho_clause_label; try assumption. apply OX, (in_map (fun c => show_ident (cl_xtor c))), Hc. }
    apply shc_bind; [rewrite <- RT; apply sw_head_shift|]. intros c1 _.
    apply shr_bind.
    { apply (loop_shift types _ _ _ _); try assumption.
      - intros cx l Hl. apply (so_load SO). exact Hl.
      - intros cx l c l' E. destruct (lo_load LO _ _ _ _ _ E) as [X _]. exact X.
      - lia. }
    intros c3 lc3 _. rewrite shr_ok, !map_app. cbn [map]. rewrite (so_label SO), RT.
    match goal with |- context [if ?bb then _ else _] => destruct bb end; [reflexivity|]. rewrite (table_shift _ _ _ RC). reflexivity.
  - (* Create *)
    destruct env as [env|]; [|reflexivity].
    rewrite !code_create_eq. apply wrap_shift. cbv zeta.
    unfold shift_guard in G. rewrite stmt_check_create in G. apply andb_true_iff in G as [G Gn]. apply andb_true_iff in G as [SW G].
    destruct (sw_ok_inv okS okX _ _ SW) as (OS & LF & OX & _).
    sb. destruct x as [rest cenv].
    apply shr_bind; [apply (so_store SO); exact L|]. intros c1 lc1 E1. destruct (lo_store LO _ _ _ _ _ E1) as [L1 _].
    assert (L1' : (a <= lc1)%N) by lia. rewrite <- (sh_add lc1 1 L1').
    assert (K : (a < lc1 + 1)%N) by lia.
    pose proof (rho_type_label t (lc1 + 1) OS LF K) as RT.
    assert (RC : forall cl, In cl cls -> rho (type_label t (lc1 + 1) +++ "_" +++ show_ident (cl_xtor cl))
                                     = type_label t (sh (lc1 + 1)) +++ "_" +++ show_ident (cl_xtor cl)).
    { intros cl Hc. apply rho_clause_label; try assumption. apply OX, (in_map (fun c => show_ident (cl_xtor c))), Hc. }
    sb. apply shr_bind; [apply (IHs Gn); lia|]. intros c3 lc3 E3. pose proof (stmt_mono _ _ _ _ _ _ Gn E3) as L3.
    apply shr_bind.
    { apply (loop_shift types _ _ _ _); try assumption.
      - intros cx l Hl. apply (so_load SO). exact Hl.
      - intros cx l c l' E. destruct (lo_load LO _ _ _ _ _ E) as [X _]. exact X.
      - lia. }
    intros c5 lc5 _. rewrite shr_ok, !map_app. cbn [map]. rewrite (so_label SO), (so_load_label SO), RT.
    match goal with |- context [if ?bb then _ else _] => destruct bb end; [reflexivity|]. rewrite (table_shift _ _ _ RC). reflexivity.
  - (* Invoke *)
    cbn [code_statement]. apply wrap_shift. sb. sb. destruct (Nat.leb (List.length (txtors x0)) 1); [fin; reflexivity|].
    sb. fin. reflexivity.
  - (* Literal *)
    cbn [code_statement]. apply wrap_shift. cbn [shift_guard stmt_check] in G. sb.
    apply shr_bind; [apply (IHs G); exact L|]. intros c2 lc2 _. fin. reflexivity.
  - (* Op *)
    cbn [code_statement]. apply wrap_shift. cbn [shift_guard stmt_check] in G. sb. sb. sb.
    apply shr_bind; [apply (IHs G); exact L|]. intros c2 lc2 _. fin. reflexivity.
  - (* PrintI64 *)
    cbn [code_statement]. apply wrap_shift. cbn [shift_guard stmt_check] in G. sb.
    apply shr_bind; [apply (IHs G); exact L|]. intros c2 lc2 _. fin. reflexivity.
  - (* IfC *)
    cbn [code_statement]. apply wrap_shift. cbn [shift_guard stmt_check] in G. apply andb_true_iff in G as [G1 G2].
    rewrite <- (sh_add lc 1 L).
    assert (RL : rho ("lab" +++ dec (lc + 1)) = "lab" +++ dec (sh (lc + 1))).
    { change ("lab" +++ dec (lc + 1)) with (pr (GLab (lc + 1))). rewrite rho_gen; [reflexivity|exact I|reflexivity|cbn [key]; lia]. }
    sb.
    apply shc_bind; [rewrite <- RL; apply ifc_head_shift|]. intros c1 _.
    apply shr_bind; [apply (IHs2 G2); lia|]. intros c2 lc2 E2. pose proof (stmt_mono _ _ _ _ _ _ G2 E2) as L2.
    apply shr_bind; [apply (IHs1 G1); lia|]. intros c3 lc3 _.
    rewrite shr_ok, !map_app. cbn [map]. rewrite (so_label SO), RL. reflexivity.
  - (* Exit *)
    cbn [code_statement]. apply wrap_shift. sb. fin. rewrite rho_cleanup. reflexivity.
Qed.

Definition shift_guard_defs (ds : list def) : bool :=
  forallb (fun d => lower_first (show_ident (dname d)) && shift_guard (dbody d)) ds.
Theorem translate_shift_gen types : forall ds lc, shift_guard_defs ds = true -> (a <= lc)%N ->
  translate B types ds (sh lc) = shr (translate B types ds lc).
Proof.
  induction ds as [|d r IH]; intros lc G L; cbn [translate]; [reflexivity|].
  cbn [shift_guard_defs forallb] in G. apply andb_true_iff in G as [G1 G2]. apply andb_true_iff in G1 as [GL GS].
  apply shr_bind; [apply (code_statement_shift types _ GS); exact L|]. intros c1 lc1 E1. pose proof (stmt_mono _ _ _ _ _ _ GS E1) as L1.
  apply shr_bind; [apply (IH _ G2); lia|]. intros c2 lc2 _.
  rewrite shr_ok. cbn [app map]. rewrite (so_label SO), map_app, rho_def by exact GL. reflexivity.
Qed.
End Shift.
Ltac sb := apply same_bind; intros.   (* for the back-end files, as inside the section *)

(* instructions without a label are not changed by the renaming: [nolab] is any test that holds only of such *)
Lemma rn_nolab {Code} (cmap : (string -> string) -> Code -> Code) rho (nolab : Code -> bool) :
  (forall i, nolab i = true -> cmap rho i = i) -> forall l, forallb nolab l = true -> map (cmap rho) l = l.
Proof.
  intros F. induction l as [|c l IH]; intros H; [reflexivity|]. cbn [forallb] in H. apply andb_true_iff in H as [H1 H2].
  cbn [map]. rewrite IH, F by assumption. reflexivity.
Qed.
