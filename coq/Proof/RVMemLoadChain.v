(* C09 on RISC-V: `r_load` of ANY number of variables (objects chained over several blocks, axcut2rv64 memory.rs
   load / load_fields with block positions / load_values / load_value) refines `Heap.load_object (nlinks n) p` on the
   ISA semantics Sem/RVSem.v, in both modes (Release: the last reference, every block of the chain goes onto the reuse
   list; Share: the count of the head is decremented and every loaded pointer gains a reference).  The RISC-V
   counterpart of Proof/X86MemLoad.v + X86MemLoadChain.v and of Proof/A64MemLoad.v + A64MemLoadChain.v; there are no
   spill slots, so no evacuation of a block register:
     rv_load_value / rv_load_values   the loads (and shares) of one block, against the abstract `lv_abs`;
     rv_load_block                    one block of load_fields: (release,) (link,) values;
     rv_load_fields                   the recursion of load_fields, against the abstract walk `lf_abs` in emission order;
     rv_load_walk, rv_load_chain      the header test, then the Release walk or decrement + Share walk = Heap.load_object.
   SHARED WITH x86-64 / AArch64 (qualified names, nothing copied): share_on, lv_abs, lv_kids (Proof/X86MemLoad.v),
   blk_abs, lf_ptr, lf_abs, lf_ok, lf_addrs, lf_share_ok, lf_ext, lf_abs_release_load_object, lf_abs_share_load_object
   (Proof/X86MemLoadChain.v). *)
From Coq Require Import List ZArith NArith String Bool Lia FMapPositive.
From SCC Require Import Base.Sexp Lang.AxSyn Sem.AxSem Sem.AxHeap Model.Backend Model.RV Sem.RVSem Generated.Constants
     Proof.RVSel Proof.RVHeapAbs Proof.RVHDefs Proof.RVHMem Proof.RVMemStoreChain.
From SCC Require Model.Heap Model.X86 Proof.X86Mem Proof.X86MemFrame Proof.X86MemStore Proof.X86MemStoreChain
     Proof.X86MemLoad Proof.X86MemLoadChain Proof.X86HeapDefs.
Import ListNotations.
Open Scope list_scope.
Open Scope Z_scope.

Notation share_on := X86MemLoad.share_on.
Notation lv_abs := X86MemLoad.lv_abs.
Notation lv_kids := X86MemLoad.lv_kids.
Notation blk_abs := X86MemLoadChain.blk_abs.
Notation lf_ptr := X86MemLoadChain.lf_ptr.
Notation lf_abs := X86MemLoadChain.lf_abs.
Notation lf_ok := X86MemLoadChain.lf_ok.
Notation blk_addrs := X86MemLoadChain.blk_addrs.
Notation lf_addrs := X86MemLoadChain.lf_addrs.
Notation lf_share_ok := X86MemLoadChain.lf_share_ok.
Notation XLast := X86.Last.

(* the modes / block positions of Model/RV.v in the vocabulary of the shared abstract walk *)
Definition xm (m : load_mode) : X86.load_mode := match m with Release => X86.Release | Share => X86.Share end.
Definition xbp (b : block_position) : X86.block_position := match b with Last => X86.Last | Other => X86.Other end.
Lemma xm_share m : xm m = X86.Share -> m = Share. Proof. destruct m; [discriminate|reflexivity]. Qed.
Lemma bp_n_x bp : X86.bp_n (xbp bp) = bp_n bp. Proof. destruct bp; reflexivity. Qed.
Ltac fo := change X86.field_offset with field_offset in *.

Definition nonblk_same (s s' : rstate) : Prop := forall a, ~ is_blk a -> hword s' a = hword s a.
Lemma nonblk_same_refl s : nonblk_same s s. Proof. intros a _. reflexivity. Qed.
Lemma nonblk_same_trans s1 s2 s3 : nonblk_same s1 s2 -> nonblk_same s2 s3 -> nonblk_same s1 s3.
Proof. intros A B a Ha. rewrite B, A by exact Ha. reflexivity. Qed.

Lemma field_not_blk p t j : is_blk p -> (j < 3)%N -> ~ is_blk (p + field_offset t j).
Proof. intros Hp Hj. apply not_blk_off; [exact Hp|]. rewrite fo_val. destruct t; cbn [tnum_n]; lia. Qed.

Lemma abs_heap_eqB F s s' :
  (forall a, hword s' a = hword s a) -> rget s' HEAP = rget s HEAP -> rget s' FREE = rget s FREE ->
  st_eqB (abs_heap F s') (abs_heap F s).
Proof.
  intros W H1 H2. unfold abs_heap, reg_or0. rewrite H1, H2. split; [reflexivity|]. split; [reflexivity|]. split; [reflexivity|].
  intros x _. cbn [Heap.m]. unfold abs_mem. now rewrite !W.
Qed.

Lemma rtp_special k : rtp k <> ZERO /\ rtp k <> TEMP /\ rtp k <> HEAP /\ rtp k <> FREE.
Proof. unfold rtp. change ZERO with 0%N. change TEMP with 1%N. change HEAP with 2%N. change FREE with 3%N. lia. Qed.
Lemma rtp_inj k k' : rtp k = rtp k' -> k = k'. Proof. unfold rtp. lia. Qed.
Lemma four_special r : (4 <= r)%N -> r <> ZERO /\ r <> TEMP /\ r <> HEAP /\ r <> FREE.
Proof. change ZERO with 0%N. change TEMP with 1%N. change HEAP with 2%N. change FREE with 3%N. lia. Qed.

Section Load.
Variable im : image.

(* load_value: integer slot, pointer slot, share *)
Lemma load_value_shape b c blk j m lc cs lc' :
  load_value b c blk j m lc = Ok (cs, lc') ->
  let L := List.length c in
  let cS := [LW (pos_reg Snd L) blk (field_offset Snd j)] in
  let cF := [LW (pos_reg Fst L) blk (field_offset Fst j)] in
  let sh := r_share_block_n (pos_reg Fst L) 1 lc in
  (L < 14)%nat /\
  ((bchi b = Ext /\ cs = cS /\ lc' = lc) \/
   (bchi b <> Ext /\ m = Release /\ cs = cS ++ cF /\ lc' = lc) \/
   (bchi b <> Ext /\ m = Share /\ cs = cS ++ cF ++ fst sh /\ lc' = snd sh)).
Proof.
  intros H L cS cF sh. unfold load_value, load_field in H.
  destruct (r_fresh Snd c) as [tS|] eqn:ES; [|discriminate]. cbn [rbind] in H.
  assert (HL : (L < 14)%nat).
  { unfold r_fresh, temporary_from_position in ES. fold L in ES.
    destruct (N.ltb_spec (2 * N.of_nat L + tnum_n Snd + RESERVED) REGISTER_NUM) as [K|K]; [|discriminate].
    cbn [tnum_n] in K. change RESERVED with 4%N in K. change REGISTER_NUM with 32%N in K. lia. }
  apply r_fresh_ok in ES. subst tS. fold L in H. split; [exact HL|].
  destruct (bchi b) eqn:Echi.
  3:{ inversion H. left. auto. }
  all: right;
    destruct (r_fresh Fst c) as [tF|] eqn:EF; [|discriminate]; cbn [rbind] in H;
    apply r_fresh_ok in EF; subst tF; fold L in H;
    destruct m;
    [ left; inversion H; repeat split; auto; discriminate
    | right; fold sh in H; destruct sh as [c3 lc1]; inversion H; repeat split; auto; discriminate ].
Qed.

Lemma rv_load_value pos b c blk j m lc cs lc' s p F h0 f0 :
  load_value b c blk j m lc = Ok (cs, lc') ->
  placed im pos cs -> (j < 3)%N ->
  rget s blk = Some p -> is_blk p -> rget s HEAP = Some h0 -> rget s FREE = Some f0 ->
  let L := List.length c in
  blk <> pos_reg Snd L ->
  let wS := hword s (p + field_offset Snd j) in
  let wF := hword s (p + field_offset Fst j) in
  (share_on (xm m) b = true -> wF = 0 \/ is_blk wF) ->
  (share_on (xm m) b = true -> wF <> 0 -> min_int <= hword s wF + 1 <= max_int) ->
  exists s', star im pos s (padd pos (List.length cs)) s' /\
    st_eqB (abs_heap F s') (if share_on (xm m) b then Heap.share wF 1 (abs_heap F s) else abs_heap F s) /\
    rget s' (pos_reg Snd L) = Some wS /\
    (bchi b <> Ext -> rget s' (pos_reg Fst L) = Some wF) /\
    (forall r, r <> pos_reg Fst L -> r <> pos_reg Snd L -> r <> TEMP -> rget s' r = rget s r) /\
    nonblk_same s s' /\
    (forall x, is_blk x -> hword s x <= hword s' x <= hword s x + 1).
Proof.
  intros Hlv PL Hj R Hb HH HF L NS wS wF Hkid Hwrap.
  destruct (load_value_shape _ _ _ _ _ _ _ _ Hlv) as (K1 & Hshape). fold L in K1, Hshape.
  pose proof (is_blk_valid_block p Hb) as VB.
  pose proof (pos_reg_reserved Snd L) as S4. pose proof (pos_reg_reserved Fst L) as F4.
  assert (NSF : pos_reg Snd L <> pos_reg Fst L) by (intros E; apply pos_reg_inj in E as [E _]; discriminate).
  set (s1 := rset s (pos_reg Snd L) (Some wS)).
  assert (R1 : rget s1 blk = Some p) by (unfold s1; rewrite rget_rset_other by congruence; exact R).
  set (s2 := rset s1 (pos_reg Fst L) (Some wF)).
  assert (W2 : forall a, hword s2 a = hword s a) by (intros a; unfold s2, s1; now rewrite !hword_rset).
  destruct Hshape as [(Hext & -> & ->)|[(Hnext & -> & -> & ->)|(Hnext & -> & -> & ->)]].
  - (* integer variable *)
    rewrite (X86MemLoad.share_on_ext (xm m) b Hext). destruct PL as [AC _].
    exists s1. split; [|split; [|split; [|split; [|split; [|split]]]]].
    + exec_next AC 0%nat step_LW; [exact R|apply field_fits12; exact Hj|apply field_valid; [exact VB|exact Hj]|]. apply star_refl.
    + apply abs_heap_eqB; unfold s1; [intros a; apply hword_rset| |]; apply rget_rset_other; destruct (four_special _ S4) as (_ & _ & A & B); congruence.
    + unfold s1. apply rget_rset_same. lia.
    + intros C. contradiction.
    + intros r _ N2 _. unfold s1. apply rget_rset_other. congruence.
    + intros a _. unfold s1. apply hword_rset.
    + intros x _. unfold s1. rewrite hword_rset. lia.
  - (* pointer, the block is released: no sharing *)
    change (xm Release) with X86.Release. rewrite X86MemLoad.share_on_release. destruct PL as [AC _].
    exists s2. split; [|split; [|split; [|split; [|split; [|split]]]]].
    + exec_next AC 0%nat step_LW; [exact R|apply field_fits12; exact Hj|apply field_valid; [exact VB|exact Hj]|].
      exec_next AC 1%nat step_LW; [exact R1|apply field_fits12; exact Hj|apply field_valid; [exact VB|exact Hj]|].
      match goal with |- star _ _ ?a _ _ => replace a with s2 by (unfold s2, s1, wS, wF; now rewrite hword_rset) end. apply star_refl.
    + apply abs_heap_eqB; [exact W2| |]; unfold s2, s1; rewrite !rget_rset_other; try reflexivity;
        destruct (four_special _ S4) as (_ & _ & A & B); destruct (four_special _ F4) as (_ & _ & A' & B'); congruence.
    + unfold s2. rewrite rget_rset_other by congruence. unfold s1. apply rget_rset_same. lia.
    + intros _. unfold s2. apply rget_rset_same. lia.
    + intros r N1 N2 _. unfold s2, s1. rewrite !rget_rset_other by congruence. reflexivity.
    + intros a _. apply W2.
    + intros x _. rewrite W2. lia.
  - (* pointer, shared *)
    change (xm Share) with X86.Share in *. rewrite (X86MemLoad.share_on_share b Hnext) in *.
    apply placed_app in PL as [[AC1 _] PL]. apply placed_app in PL as [[AC2 _] PL3].
    destruct (four_special _ S4) as (_ & ST & SH & SF). destruct (four_special _ F4) as (FZ & FT & FH & FF).
    assert (HH2 : rget s2 HEAP = Some h0) by (unfold s2, s1; rewrite !rget_rset_other by congruence; exact HH).
    assert (HF2 : rget s2 FREE = Some f0) by (unfold s2, s1; rewrite !rget_rset_other by congruence; exact HF).
    assert (RF2 : rget s2 (pos_reg Fst L) = Some wF) by (unfold s2; apply rget_rset_same; lia).
    destruct (rv_share_block_heap im _ (pos_reg Fst L) 1 lc s2 wF F h0 f0 PL3 FZ FT FH FF HH2 HF2 RF2 (Hkid eq_refl) eq_refl)
      as (s3 & ST3 & EQ3 & KR3 & NB3).
    { intros Hn. rewrite W2. change (Z.of_N 1) with 1. now apply Hwrap. }
    change (Z.of_N 1) with 1 in EQ3.
    assert (EQ2 : st_eqB (abs_heap F s2) (abs_heap F s)).
    { apply abs_heap_eqB; [exact W2| |]; unfold s2, s1; rewrite !rget_rset_other by congruence; reflexivity. }
    assert (EQ : st_eqB (abs_heap F s3) (Heap.share wF 1 (abs_heap F s))).
    { eapply st_eqB_trans; [exact EQ3|]. apply share_st_eqB; [exact EQ2|exact (Hkid eq_refl)]. }
    exists s3. split; [|split; [|split; [|split; [|split; [|split]]]]].
    + rewrite !app_length, !padd_add. eapply star_trans; [|exact ST3]. cbn [List.length padd].
      exec_next AC1 0%nat step_LW; [exact R|apply field_fits12; exact Hj|apply field_valid; [exact VB|exact Hj]|].
      exec_next AC2 0%nat step_LW; [exact R1|apply field_fits12; exact Hj|apply field_valid; [exact VB|exact Hj]|].
      match goal with |- star _ _ ?a _ _ => replace a with s2 by (unfold s2, s1, wS, wF; now rewrite hword_rset) end. apply star_refl.
    + exact EQ.
    + rewrite KR3 by congruence. unfold s2. rewrite rget_rset_other by congruence. unfold s1. apply rget_rset_same. lia.
    + intros _. rewrite KR3 by congruence. exact RF2.
    + intros r N1 N2 N3. rewrite KR3 by exact N3. unfold s2, s1. rewrite !rget_rset_other by congruence. reflexivity.
    + intros a Ha. rewrite NB3 by exact Ha. apply W2.
    + intros x Hx. destruct EQ as (_ & _ & _ & E4). pose proof (f_equal Heap.hdr (E4 x Hx)) as E. cbn [abs_heap Heap.m abs_mem Heap.hdr] in E.
      rewrite E. unfold Heap.share. destruct (wF =? 0); cbn [Heap.m abs_heap abs_mem Heap.hdr]; [lia|].
      unfold Heap.set_hdr, Heap.upd. destruct (Z.eqb_spec x wF) as [->|]; cbn [Heap.hdr abs_mem]; lia.
Qed.

Lemma rv_load_values : forall bsrev existing blk ff m lc cs lc' pos s p F,
  load_values bsrev existing blk ff m lc = Ok (cs, lc') ->
  (N.of_nat (List.length bsrev) <= ff)%N -> (ff <= 3)%N ->
  placed im pos cs -> (4 <= blk)%N ->
  (bsrev <> [] -> rget s blk = Some p) -> is_blk p ->
  (exists h0, rget s HEAP = Some h0) -> (exists f0, rget s FREE = Some f0) ->
  (forall k, (2 * N.of_nat (List.length existing) < k)%N -> blk <> rtp k) ->
  lv_kids (xm m) (hword s) bsrev p ff ->
  (m = Share -> forall x, is_blk x -> min_int <= hword s x /\ hword s x + Z.of_nat (List.length bsrev) <= max_int) ->
  exists s', star im pos s (padd pos (List.length cs)) s' /\
    st_eqB (abs_heap F s') (lv_abs (xm m) (hword s) bsrev p ff (abs_heap F s)) /\
    (forall i b, nth_error (rev bsrev) i = Some b ->
       rget s' (rtp (2 * N.of_nat (List.length existing + i) + 1)) =
         Some (hword s (p + field_offset Snd (ff - N.of_nat (List.length bsrev) + N.of_nat i))) /\
       (bchi b <> Ext -> rget s' (rtp (2 * N.of_nat (List.length existing + i))) =
         Some (hword s (p + field_offset Fst (ff - N.of_nat (List.length bsrev) + N.of_nat i))))) /\
    (forall r, r <> TEMP ->
       (forall k, (2 * N.of_nat (List.length existing) <= k < 2 * N.of_nat (List.length existing + List.length bsrev))%N -> r <> rtp k) ->
       rget s' r = rget s r) /\
    nonblk_same s s' /\
    (forall x, is_blk x -> hword s x <= hword s' x <= hword s x + Z.of_nat (List.length bsrev)).
Proof.
  induction bsrev as [|b rest IH]; intros existing blk ff m lc cs lc' pos s p F Hlv Hlen Hff PL B4 R Hb HH HF NK Kids Room.
  - cbn [load_values] in Hlv. inversion Hlv; subst cs lc'. exists s. cbn [List.length lv_abs padd rev].
    split; [apply star_refl|]. split; [apply st_eqB_refl|]. split; [intros i b Hi; destruct i; discriminate|].
    split; [auto|]. split; [apply nonblk_same_refl|]. intros; lia.
  - cbn [load_values] in Hlv. cbn [List.length] in Hlen.
    destruct (load_value b (existing ++ rev rest) blk (ff - 1) m lc) as [[c1 lc1]|] eqn:E1; [|discriminate]. cbn [rbind] in Hlv.
    destruct (load_values rest existing blk (ff - 1) m lc1) as [[c2 lc2]|] eqn:E2; [|discriminate]. cbn [rbind] in Hlv.
    inversion Hlv; subst cs lc'. clear Hlv.
    set (E := List.length existing) in *. set (n := List.length rest) in *.
    assert (HL' : List.length (existing ++ rev rest) = (E + n)%nat) by (rewrite app_length, rev_length; reflexivity).
    apply placed_app in PL as [PL1 PL2].
    cbn [X86MemLoad.lv_kids] in Kids. fo. destruct Kids as [Kid1 Kids2].
    specialize (R ltac:(discriminate)).
    set (wF := hword s (p + field_offset Fst (ff - 1))) in *.
    destruct HH as (h0 & HH). destruct HF as (f0 & HF).
    destruct (rv_load_value pos b (existing ++ rev rest) blk (ff - 1) m lc c1 lc1 s p F h0 f0 E1 PL1 ltac:(lia) R Hb HH HF)
      as (s1 & ST1 & EQ1 & VS & VF & Oth1 & NB1 & Hd1).
    { rewrite HL', pos_reg_rtp. cbn [tnum_n]. apply NK. lia. }
    { exact Kid1. }
    { intros Hsh Hn0. fold wF in Hn0 |- *. destruct (Kid1 Hsh) as [|Kb]; [contradiction|].
      destruct (Room (xm_share _ (X86MemLoad.share_on_true _ _ Hsh)) wF Kb). cbn [List.length] in *. lia. }
    rewrite HL' in VS, VF, Oth1. fold wF in EQ1, VF.
    assert (Hfld : forall t j, (j < 3)%N -> hword s1 (p + field_offset t j) = hword s (p + field_offset t j)).
    { intros t j Hj. apply NB1. now apply field_not_blk. }
    assert (SP : forall r, r = HEAP \/ r = FREE -> rget s1 r = rget s r).
    { intros r Hr. apply Oth1.
      - pose proof (pos_reg_reserved Fst (E + n)) as K. apply four_special in K. destruct Hr; subst; intuition congruence.
      - pose proof (pos_reg_reserved Snd (E + n)) as K. apply four_special in K. destruct Hr; subst; intuition congruence.
      - destruct Hr; subst; discriminate. }
    assert (R1 : rest <> [] -> rget s1 blk = Some p).
    { intros Hne. rewrite Oth1; [exact R| | |].
      - rewrite pos_reg_rtp. cbn [tnum_n]. apply NK. destruct rest; [contradiction|]. unfold n. cbn [List.length]. lia.
      - rewrite pos_reg_rtp. cbn [tnum_n]. apply NK. lia.
      - apply (four_special _ B4). }
    destruct (IH existing blk (ff - 1)%N m lc1 c2 lc2 _ s1 p F E2 ltac:(lia) ltac:(lia) PL2 B4 R1 Hb)
      as (s2 & ST2 & EQ2 & V2 & Oth2 & NB2' & Hd2).
    { exists h0. rewrite SP by auto. exact HH. }
    { exists f0. rewrite SP by auto. exact HF. }
    { exact NK. }
    { eapply X86MemLoad.lv_kids_congr; [|lia|exact Kids2]. intros j Hj. fo. symmetry. apply Hfld. lia. }
    { intros Hm x Hx. destruct (Room Hm x Hx), (Hd1 x Hx). cbn [List.length] in *. fold n. lia. }
    fold E n in V2, Oth2, Hd2.
    exists s2. split; [rewrite app_length, padd_add; eapply star_trans; eassumption|]. split; [|split; [|split; [|split]]].
    + cbn [X86MemLoad.lv_abs]. fo. fold wF. eapply st_eqB_trans; [exact EQ2|]. apply X86MemLoad.lv_abs_congr; auto; [|lia|].
      * intros j Hj. fo. apply Hfld. lia.
      * eapply X86MemLoad.lv_kids_congr; [|lia|exact Kids2]. intros j Hj. fo. symmetry. apply Hfld. lia.
    + cbn [rev List.length]. fold n. intros i b' Hi. destruct (Nat.lt_ge_cases i n) as [Hlt|Hge].
      * rewrite nth_error_app1 in Hi by (rewrite rev_length; exact Hlt).
        destruct (V2 i b' Hi) as [A B]. rewrite !Hfld in A, B by lia.
        replace (ff - N.of_nat (S n) + N.of_nat i)%N with (ff - 1 - N.of_nat n + N.of_nat i)%N by lia. auto.
      * assert (i = n).
        { assert (i < List.length (rev rest ++ [b]))%nat by (apply nth_error_Some; congruence).
          rewrite app_length, rev_length in H. cbn [List.length] in H. fold n in H. lia. }
        subst i. rewrite nth_error_app2, rev_length, Nat.sub_diag in Hi by (rewrite rev_length; apply Nat.le_refl).
        inversion Hi; subst b'.
        replace (ff - N.of_nat (S n) + N.of_nat n)%N with (ff - 1)%N by lia.
        rewrite pos_reg_rtp in VS, VF. cbn [tnum_n] in VS, VF. rewrite N.add_0_r in VF.
        split; [|intros Hne].
        -- rewrite Oth2; [exact VS|apply rtp_special|]. intros k Hk E'. apply rtp_inj in E'. lia.
        -- rewrite Oth2; [exact (VF Hne)|apply rtp_special|]. intros k Hk E'. apply rtp_inj in E'. lia.
    + intros r NT Hl. cbn [List.length] in Hl. fold n in Hl. rewrite Oth2, Oth1; auto.
      * rewrite pos_reg_rtp. cbn [tnum_n]. rewrite N.add_0_r. apply Hl. lia.
      * rewrite pos_reg_rtp. cbn [tnum_n]. apply Hl. lia.
      * intros k Hk. apply Hl. lia.
    + eapply nonblk_same_trans; eassumption.
    + intros x Hx. destruct (Hd1 x Hx), (Hd2 x Hx). cbn [List.length]. fold n. lia.
Qed.

(* one block of load_fields, the block pointer in register R *)
Definition rel_code (m : load_mode) (r : reg) : list rcode := match m with Release => release_block r | Share => [] end.
Definition link_load_code (bp : block_position) (klink : nat) (R : reg) : list rcode :=
  match bp with Other => [LW (pos_reg Fst klink) R (field_offset Fst 2)] | Last => [] end.

Lemma rv_load_block pos bp next epr m lc lv lc' klink s p F :
  let R := pos_reg Fst (List.length epr) in
  load_values (rev next) epr R (3 - bp_n bp) m lc = Ok (lv, lc') ->
  next <> [] -> (N.of_nat (List.length next) <= 3 - bp_n bp)%N ->
  klink = (List.length epr + List.length next)%nat ->
  placed im pos (rel_code m R ++ link_load_code bp klink R ++ lv) ->
  rget s R = Some p -> is_blk p -> (exists h, rget s HEAP = Some h) -> (exists f0, rget s FREE = Some f0) ->
  lv_kids (xm m) (hword s) (rev next) p (3 - bp_n bp) ->
  (m = Share -> forall x, is_blk x -> min_int <= hword s x /\ hword s x + Z.of_nat (List.length next) <= max_int) ->
  exists s', star im pos s (padd pos (List.length (rel_code m R ++ link_load_code bp klink R ++ lv))) s' /\
    st_eqB (abs_heap F s') (blk_abs (xm m) (hword s) next p (3 - bp_n bp) (abs_heap F s)) /\
    (bp = Other -> rget s' (pos_reg Fst klink) = Some (hword s (p + 48))) /\
    (forall i b, nth_error next i = Some b ->
       rget s' (rtp (2 * N.of_nat (List.length epr + i) + 1)) =
         Some (hword s (p + field_offset Snd (3 - bp_n bp - N.of_nat (List.length next) + N.of_nat i))) /\
       (bchi b <> Ext -> rget s' (rtp (2 * N.of_nat (List.length epr + i))) =
         Some (hword s (p + field_offset Fst (3 - bp_n bp - N.of_nat (List.length next) + N.of_nat i))))) /\
    (forall r, r <> TEMP -> r <> HEAP ->
       (forall k, (2 * N.of_nat (List.length epr) <= k <= 2 * N.of_nat klink)%N -> r <> rtp k) ->
       rget s' r = rget s r) /\
    nonblk_same s s' /\
    (m = Share -> forall x, is_blk x -> hword s x <= hword s' x <= hword s x + Z.of_nat (List.length next)) /\
    (exists h', rget s' HEAP = Some h').
Proof.
  intros R Hlv Hne Hlen Hkl PL R0 Hb (h & Hh) (f0 & Hf) Kids Room.
  set (cap := (3 - bp_n bp)%N) in *. set (Eb := List.length epr) in *.
  assert (Hcap : (cap <= 3)%N) by (unfold cap; destruct bp; cbn; lia).
  assert (Hn1 : (1 <= List.length next)%nat) by (destruct next; [contradiction|cbn; lia]).
  pose proof (pos_reg_reserved Fst Eb) as R4. fold R in R4. destruct (four_special R R4) as (RZ & RT & RH & RF).
  pose proof (is_blk_valid_block p Hb) as VB. pose proof (is_blk_valid_addr p Hb) as VA.
  apply placed_app in PL as [PL1 PL2]. apply placed_app in PL2 as [PL2 PL3].
  (* release *)
  assert (S1 : exists s1, star im pos s (padd pos (List.length (rel_code m R))) s1 /\
     st_eqB (abs_heap F s1) (match m with Release => Heap.release p (abs_heap F s) | Share => abs_heap F s end) /\
     (forall r', r' <> HEAP -> rget s1 r' = rget s r') /\ (exists h', rget s1 HEAP = Some h') /\
     (forall a, hword s1 a = if (match m with Release => true | Share => false end) && (a =? p) then h else hword s a)).
  { destruct m; cbn [rel_code].
    - pose proof (represents_own s h f0 Hh Hf) as RP.
      destruct (rv_release_block_refines im pos R s _ p PL1 RZ RH RP R0 VA) as (s1 & ST1 & RP1 & KR1).
      exists s1. split; [exact ST1|]. split; [|split; [exact KR1|split]].
      + eapply st_eqB_trans; [apply (represents_abs F _ _ RP1)|].
        eapply st_eqB_trans; [apply habs_release; exact Hb|]. apply release_st_eqB; [|exact Hb].
        apply st_eqB_sym. eapply abs_heap_own; eauto.
      + destruct RP1 as (_ & X & _). eauto.
      + intros a. destruct RP1 as (W & _). rewrite W. unfold a_release, own_heap, reg_or0. cbn [words hp]. rewrite Hh.
        unfold upd. cbn [andb]. reflexivity.
    - exists s. split; [apply star_refl|]. split; [apply st_eqB_refl|]. split; [auto|]. split; [eauto|]. auto. }
  destruct S1 as (s1 & ST1 & EQ1 & Oth1 & (h1 & H1) & W1).
  assert (R1 : rget s1 R = Some p) by (rewrite Oth1 by exact RH; exact R0).
  assert (Hoff : forall i, 0 < i < 64 -> hword s1 (p + i) = hword s (p + i)).
  { intros i Hi. rewrite W1. destruct (Z.eqb_spec (p + i) p); [lia|]. now rewrite andb_false_r. }
  assert (Hfld : forall t j, (j < 3)%N -> hword s1 (p + field_offset t j) = hword s (p + field_offset t j)).
  { intros t j Hj. apply Hoff. rewrite fo_val. destruct t; cbn [tnum_n]; lia. }
  assert (NB1 : nonblk_same s s1).
  { intros a Ha. rewrite W1. destruct (Z.eqb_spec a p) as [->|]; [contradiction|]. now rewrite andb_false_r. }
  (* the link *)
  assert (S2 : exists s2, star im (padd pos (List.length (rel_code m R))) s1
                            (padd (padd pos (List.length (rel_code m R))) (List.length (link_load_code bp klink R))) s2 /\
     (bp = Other -> rget s2 (pos_reg Fst klink) = Some (hword s (p + 48))) /\
     (forall r, r <> pos_reg Fst klink -> rget s2 r = rget s1 r) /\
     (forall a, hword s2 a = hword s1 a)).
  { destruct bp; cbn [link_load_code] in *.
    - exists s1. split; [apply star_refl|]. split; [discriminate|]. split; auto.
    - destruct PL2 as [AC2 _]. exists (rset s1 (pos_reg Fst klink) (Some (hword s1 (p + field_offset Fst 2)))).
      split; [|split; [|split]].
      + exec_next AC2 0%nat step_LW; [exact R1|apply field_fits12; lia|apply field_valid; [exact VB|lia]|]. apply star_refl.
      + intros _. rewrite rget_rset_same by (pose proof (pos_reg_reserved Fst klink); lia). rewrite Hfld by lia. reflexivity.
      + intros r Hr. apply rget_rset_other. congruence.
      + intros a. apply hword_rset. }
  destruct S2 as (s2 & ST2 & Vl & Oth2 & W2).
  assert (NKl : R <> pos_reg Fst klink) by (unfold R; intros E'; apply pos_reg_inj in E' as [_ E']; lia).
  assert (R2 : rget s2 R = Some p) by (rewrite Oth2 by exact NKl; exact R1).
  assert (SPk : forall r, r = HEAP \/ r = FREE -> r <> pos_reg Fst klink).
  { intros r Hr. pose proof (pos_reg_reserved Fst klink) as K. apply four_special in K. destruct Hr; subst; intuition congruence. }
  (* the values *)
  destruct (rv_load_values (rev next) epr R cap m lc lv lc' _ s2 p F Hlv ltac:(rewrite rev_length; exact Hlen) Hcap PL3 R4 (fun _ => R2) Hb)
    as (s3 & ST3 & EQ3 & V3 & Oth3 & NB3 & Hd3).
  { exists h1. rewrite Oth2 by (apply SPk; auto). exact H1. }
  { exists f0. rewrite Oth2 by (apply SPk; auto). rewrite Oth1 by discriminate. exact Hf. }
  { intros k Hk. unfold R. rewrite pos_reg_rtp. cbn [tnum_n]. intros E'. apply rtp_inj in E'. fold Eb in Hk. lia. }
  { eapply X86MemLoad.lv_kids_congr; [|rewrite rev_length; exact Hlen|exact Kids]. intros j Hj. fo. rewrite W2. symmetry. apply Hfld. lia. }
  { intros Hm x Hx. subst m. rewrite W2, W1. cbn [andb]. rewrite rev_length. now apply Room. }
  rewrite rev_length, rev_involutive in *.
  exists s3. split; [|split; [|split; [|split; [|split; [|split; [|split]]]]]].
  - rewrite !app_length, !padd_add. eapply star_trans; [exact ST1|]. eapply star_trans; [exact ST2|]. exact ST3.
  - unfold X86MemLoadChain.blk_abs. eapply st_eqB_trans; [exact EQ3|]. apply X86MemLoad.lv_abs_congr.
    + eapply st_eqB_trans; [|destruct m; exact EQ1]. apply abs_heap_eqB; [exact W2| |]; apply Oth2; apply SPk; auto.
    + intros j Hj. fo. rewrite W2. apply Hfld. lia.
    + rewrite rev_length. exact Hlen.
    + eapply X86MemLoad.lv_kids_congr; [|rewrite rev_length; exact Hlen|exact Kids]. intros j Hj. fo. rewrite W2. symmetry. apply Hfld. lia.
  - intros Ho. rewrite Oth3; [exact (Vl Ho)|apply (four_special _ (pos_reg_reserved Fst klink))|].
    intros k Hk. rewrite pos_reg_rtp. cbn [tnum_n]. intros E'. apply rtp_inj in E'. fold Eb in Hk. lia.
  - intros i b Hi. destruct (V3 i b Hi) as [A B].
    assert (Hi' : (i < List.length next)%nat) by (apply nth_error_Some; congruence).
    rewrite !W2, !Hfld in A, B by lia. auto.
  - intros r N1 N2 N3. rewrite Oth3; [|exact N1|intros k Hk; apply N3; fold Eb in Hk |- *; lia].
    rewrite Oth2; [apply Oth1; exact N2|]. rewrite pos_reg_rtp. cbn [tnum_n]. rewrite N.add_0_r. apply N3. fold Eb. lia.
  - eapply nonblk_same_trans; [exact NB1|]. intros a Ha. rewrite NB3 by exact Ha. apply W2.
  - intros Hm x Hx. subst m. specialize (Hd3 x Hx). rewrite W2, W1 in Hd3. cbn [andb] in Hd3. exact Hd3.
  - exists h1. rewrite Oth3; [rewrite Oth2 by (apply SPk; auto); exact H1|discriminate|].
    intros k _. apply not_eq_sym. apply rtp_special.
Qed.
End Load.

(* the abstract walk, unfolded once, in the vocabulary of Model/RV.v *)
Lemma lf_unfold f m w tl bp p : tl <> [] ->
  let cap := (3 - bp_n bp)%N in
  let rl := rest_len (List.length tl) cap in
  let rest := firstn rl tl in
  let next := skipn rl tl in
  let q := lf_ptr f w rest (xbp Other) p in
  lf_ptr (S f) w tl (xbp bp) p = w (q + 48) /\
  (forall a, lf_abs (S f) (xm m) w tl (xbp bp) p a = blk_abs (xm m) w next q cap (lf_abs f (xm m) w rest (xbp Other) p a)) /\
  (lf_ok (S f) (xm m) w tl (xbp bp) p -> lf_ok f (xm m) w rest (xbp Other) p /\ is_blk q /\ lv_kids (xm m) w (rev next) q cap) /\
  lf_addrs (S f) w tl (xbp bp) p = lf_addrs f w rest (xbp Other) p ++ blk_addrs q cap.
Proof.
  destruct tl as [|x r]; [contradiction|]. intros _. destruct bp; cbv zeta; (split; [reflexivity|split; [intros a; reflexivity|split; [intros H; exact H|reflexivity]]]).
Qed.

Section LoadChain.
Variable im : image.

(* the shape of one level of load_fields *)
Lemma load_fields_unfold fuel to_load existing bp m lc cs lc' :
  to_load <> [] -> load_fields (S fuel) to_load existing bp m lc = Ok (cs, lc') ->
  let rl := rest_len (List.length to_load) (3 - bp_n bp) in
  let epr := existing ++ firstn rl to_load in
  let R := pos_reg Fst (List.length epr) in
  let klink := List.length (existing ++ to_load) in
  exists c0 lc0 lv,
    load_fields fuel (firstn rl to_load) existing Other m lc = Ok (c0, lc0) /\
    load_values (rev (skipn rl to_load)) epr R (3 - bp_n bp) m lc0 = Ok (lv, lc') /\
    cs = c0 ++ rel_code m R ++ link_load_code bp klink R ++ lv.
Proof.
  intros Hne H rl epr R klink. cbn [load_fields] in H. destruct to_load as [|x r]; [contradiction|].
  change (FIELDS_PER_BLOCK - bp_n bp)%N with (3 - bp_n bp)%N in H.
  fold (X86MemStoreChain.rest_len (List.length (x :: r)) (3 - bp_n bp)) in H. fold rl in H. fold epr in H.
  destruct (load_fields fuel (firstn rl (x :: r)) existing Other m lc) as [[c0 lc0]|] eqn:E0; [|discriminate].
  cbn [rbind] in H.
  destruct (r_fresh Fst epr) as [t'|] eqn:Et; [|discriminate]. cbn [rbind] in H.
  apply r_fresh_ok in Et. subst t'. fold R in H.
  exists c0, lc0.
  destruct (match bp with Other => load_field Fst (existing ++ x :: r) R (FIELDS_PER_BLOCK - 1) | Last => Ok [] end) as [c2|] eqn:E2; [|discriminate].
  cbn [rbind] in H.
  assert (Ec2 : c2 = link_load_code bp klink R).
  { destruct bp; cbn [link_load_code]; [now inversion E2|]. change (FIELDS_PER_BLOCK - 1)%N with 2%N in E2. unfold load_field in E2.
    destruct (r_fresh Fst (existing ++ x :: r)) as [tl|] eqn:ET; [|discriminate]. cbn [rbind] in E2. apply r_fresh_ok in ET. subst tl.
    now inversion E2. }
  subst c2.
  destruct (load_values (rev (skipn rl (x :: r))) epr R (3 - bp_n bp) m lc0) as [[c3 lc3]|] eqn:E3; [|discriminate]. cbn [rbind] in H.
  inversion H; subst. exists c3. split; [reflexivity|]. split; [reflexivity|]. destruct m; reflexivity.
Qed.

(* the recursion of load_fields *)
Lemma rv_load_fields : forall fuel to_load existing bp m lc cs lc' pos s p F,
  load_fields fuel to_load existing bp m lc = Ok (cs, lc') ->
  (List.length to_load < fuel)%nat -> (bp = Last -> to_load <> []) ->
  placed im pos cs ->
  rget s (pos_reg Fst (List.length existing)) = Some p ->
  (exists h, rget s HEAP = Some h) -> (exists f0, rget s FREE = Some f0) ->
  lf_ok fuel (xm m) (hword s) to_load (xbp bp) p ->
  (m = Share -> forall x, is_blk x -> min_int <= hword s x /\ hword s x + Z.of_nat (List.length to_load) <= max_int) ->
  exists s', star im pos s (padd pos (List.length cs)) s' /\
    st_eqB (abs_heap F s') (lf_abs fuel (xm m) (hword s) to_load (xbp bp) p (abs_heap F s)) /\
    (bp = Other -> rget s' (pos_reg Fst (List.length existing + List.length to_load)) =
                   Some (lf_ptr fuel (hword s) to_load (xbp bp) p)) /\
    (forall i b, nth_error to_load i = Some b ->
       let A := lf_addrs fuel (hword s) to_load (xbp bp) p in
       let a := nth (List.length A - List.length to_load + i) A 0 in
       rget s' (rtp (2 * N.of_nat (List.length existing + i) + 1)) = Some (hword s (a + 8)) /\
       (bchi b <> Ext -> rget s' (rtp (2 * N.of_nat (List.length existing + i))) = Some (hword s a))) /\
    (forall r, r <> TEMP -> r <> HEAP ->
       (forall k, (2 * N.of_nat (List.length existing) <= k <= 2 * N.of_nat (List.length existing + List.length to_load))%N -> r <> rtp k) ->
       rget s' r = rget s r) /\
    nonblk_same s s' /\
    (m = Share -> forall x, is_blk x -> hword s x <= hword s' x <= hword s x + Z.of_nat (List.length to_load)) /\
    (exists h', rget s' HEAP = Some h').
Proof.
  induction fuel as [|fuel IH]; intros to_load existing bp m lc cs lc' pos s p F Hlf Hfuel HLast PL P HH HF OK Room; [lia|].
  set (E := List.length existing) in *.
  destruct to_load as [|x r].
  - (* nothing to load *)
    destruct bp; [specialize (HLast eq_refl); contradiction|].
    cbn [load_fields] in Hlf. inversion Hlf; subst cs lc'. cbn [List.length padd X86MemLoadChain.lf_abs X86MemLoadChain.lf_ptr xbp]. rewrite Nat.add_0_r.
    exists s. split; [apply star_refl|]. split; [apply st_eqB_refl|]. split; [intros _; exact P|].
    split; [intros i b Hi; destruct i; discriminate|]. split; [auto|]. split; [apply nonblk_same_refl|]. split; [intros; lia|exact HH].
  - set (to_load := x :: r) in *. set (n := List.length to_load) in *.
    assert (Hne : to_load <> []) by discriminate.
    destruct (load_fields_unfold fuel to_load existing bp m lc cs lc' Hne Hlf) as (c0 & lc0 & lv & Hlf0 & Hlv & ->).
    destruct (lf_unfold fuel m (hword s) to_load bp p Hne) as (Uptr & Uabs & Uok & Uaddrs).
    fold n in Hlf0, Hlv, PL, Uptr, Uabs, Uok, Uaddrs |- *.
    set (cap := (3 - bp_n bp)%N) in *. set (rl := rest_len n cap) in *.
    set (rest := firstn rl to_load) in *. set (next := skipn rl to_load) in *.
    assert (Hcap : (cap = 3 \/ cap = 2)%N) by (unfold cap; destruct bp; cbn; auto).
    assert (Hrl : rl = (n - N.to_nat cap)%nat) by apply X86MemStoreChain.rest_len_val.
    assert (Hn : (1 <= n)%nat) by (unfold n, to_load; cbn; lia).
    assert (Lrest : List.length rest = rl) by (unfold rest; rewrite firstn_length; fold n; lia).
    assert (Lnext : List.length next = (n - rl)%nat) by (unfold next; rewrite skipn_length; reflexivity).
    assert (Lepr : List.length (existing ++ rest) = (E + rl)%nat) by (rewrite app_length, Lrest; reflexivity).
    assert (Lall : List.length (existing ++ to_load) = (E + n)%nat) by (rewrite app_length; reflexivity).
    assert (Hsplit : to_load = rest ++ next) by (unfold rest, next; now rewrite firstn_skipn).
    assert (Hnext : next <> []) by (intros Hx; rewrite Hx in Lnext; cbn [List.length] in Lnext; lia).
    rewrite Lepr, Lall in *.
    destruct (Uok OK) as (OK0 & Hbq & Kids). clear Uok.
    rewrite Uabs, Uptr, Uaddrs. clear Uabs Uptr Uaddrs.
    set (q := lf_ptr fuel (hword s) rest (xbp Other) p) in *.
    apply placed_app in PL as [PL0 PL1].
    (* the blocks before *)
    destruct (IH rest existing Other m lc c0 lc0 pos s p F Hlf0 ltac:(rewrite Lrest; lia) ltac:(discriminate) PL0 P HH HF OK0)
      as (s1 & ST1 & EQ1 & Lk1 & V1 & Oth1 & NB1 & Hd1 & HH1).
    { intros Hm x' Hx'. destruct (Room Hm x' Hx') as [A B]. rewrite Lrest. fold n in B. lia. }
    rewrite Lrest in *. fold E q in Lk1, V1, Oth1.
    specialize (Lk1 eq_refl).
    assert (Hfld1 : forall t j, (j < 3)%N -> hword s1 (q + field_offset t j) = hword s (q + field_offset t j)).
    { intros t j Hj. apply NB1. now apply field_not_blk. }
    assert (HF1 : exists f1, rget s1 FREE = Some f1).
    { destruct HF as (f0 & HF). exists f0. rewrite Oth1; [exact HF|discriminate|discriminate|]. intros k _. apply not_eq_sym, rtp_special. }
    (* this block *)
    assert (B3 : (N.of_nat (n - rl) <= cap)%N) by lia.
    assert (B14 : lv_kids (xm m) (hword s1) (rev next) q cap).
    { eapply X86MemLoad.lv_kids_congr; [|rewrite rev_length, Lnext; lia|exact Kids]. intros j Hj. fo. symmetry. apply Hfld1. lia. }
    assert (B15 : m = Share -> forall x, is_blk x -> min_int <= hword s1 x /\ hword s1 x + Z.of_nat (n - rl) <= max_int).
    { intros Hm x' Hx'. destruct (Room Hm x' Hx') as [R1 R2]. destruct (Hd1 Hm x' Hx') as [D1 D2]. fold n in R2. lia. }
    pose proof (rv_load_block im (padd pos (List.length c0)) bp next (existing ++ rest) m lc0 lv lc' (E + n) s1 q F) as BL.
    cbv zeta in BL. rewrite Lepr, Lnext in BL. fold cap in BL.
    destruct (BL Hlv Hnext B3 ltac:(lia) PL1 Lk1 Hbq HH1 HF1 B14 B15) as (s2 & ST2 & EQ2 & Lk2 & V2 & Oth2 & NB2 & Hd2 & HH2).
    clear BL.
    exists s2. split; [|split; [|split; [|split; [|split; [|split; [|split]]]]]].
    + rewrite app_length, padd_add. eapply star_trans; eassumption.
    + eapply st_eqB_trans; [exact EQ2|].
      apply X86MemLoadChain.blk_abs_congr; [exact EQ1|intros j Hj; fo; apply Hfld1; lia|exact Hbq|rewrite Lnext; lia|exact B14].
    + intros Ho. rewrite (Lk2 Ho). f_equal. apply NB1. apply not_blk_off; [exact Hbq|lia].
    + intros i b Hi. cbv zeta. set (A := lf_addrs fuel (hword s) rest (xbp Other) p ++ blk_addrs q cap).
      set (a := nth (List.length A - n + i) A 0).
      assert (LA : (rl <= List.length (lf_addrs fuel (hword s) rest (xbp Other) p))%nat).
      { rewrite <- Lrest at 1. apply X86MemLoadChain.lf_addrs_length. rewrite Lrest. lia. }
      assert (LB : List.length (blk_addrs q cap) = N.to_nat cap) by (now apply X86MemLoadChain.blk_addrs_length).
      destruct (Nat.lt_ge_cases i rl) as [Hlt|Hge].
      * (* a variable of an earlier block *)
        assert (Hi' : nth_error rest i = Some b).
        { rewrite Hsplit in Hi. rewrite nth_error_app1 in Hi by (rewrite Lrest; exact Hlt). exact Hi. }
        destruct (V1 i b Hi') as [VS VF].
        assert (Ea : a = nth (List.length (lf_addrs fuel (hword s) rest (xbp Other) p) - rl + i) (lf_addrs fuel (hword s) rest (xbp Other) p) 0).
        { unfold a, A. rewrite app_length, LB. rewrite app_nth1 by lia. f_equal. lia. }
        rewrite Ea.
        assert (U : forall k, (k < 2 * N.of_nat (E + rl))%N -> rtp k <> TEMP /\ rtp k <> HEAP /\
                     (forall k', (2 * N.of_nat (E + rl) <= k' <= 2 * N.of_nat (E + n))%N -> rtp k <> rtp k')).
        { intros k Hk. split; [apply rtp_special|]. split; [apply rtp_special|]. intros k' Hk' E'. apply rtp_inj in E'. lia. }
        split; [|intros Hx].
        -- destruct (U (2 * N.of_nat (E + i) + 1)%N ltac:(lia)) as (U1 & U2 & U3). rewrite (Oth2 _ U1 U2 U3). exact VS.
        -- destruct (U (2 * N.of_nat (E + i))%N ltac:(lia)) as (U1 & U2 & U3). rewrite (Oth2 _ U1 U2 U3). exact (VF Hx).
      * (* a variable of this block *)
        assert (Hi' : nth_error next (i - rl) = Some b).
        { rewrite Hsplit in Hi. rewrite nth_error_app2 in Hi by (rewrite Lrest; exact Hge). now rewrite Lrest in Hi. }
        assert (Hi'' : (i - rl < n - rl)%nat) by (rewrite <- Lnext; apply nth_error_Some; congruence).
        destruct (V2 _ b Hi') as [VS VF].
        replace (E + rl + (i - rl))%nat with (E + i)%nat in VS, VF by lia.
        set (j := (cap - N.of_nat (n - rl) + N.of_nat (i - rl))%N) in *.
        assert (Hj : (j < cap)%N) by (unfold j; lia).
        assert (Ea : a = q + field_offset Fst j).
        { unfold a, A. rewrite app_length, LB. rewrite app_nth2 by lia.
          pose proof (X86MemLoadChain.blk_addrs_nth q cap j Hcap Hj) as BN. fo. rewrite <- BN. f_equal. unfold j. lia. }
        rewrite Ea. replace (q + field_offset Fst j + 8) with (q + field_offset Snd j) by (rewrite !fo_val; cbn [tnum_n]; lia).
        rewrite <- !Hfld1 by lia. auto.
    + intros r0 N1 N2 Hr. rewrite Oth2; [apply Oth1; [exact N1|exact N2|]|exact N1|exact N2|]; intros k Hk; apply Hr; lia.
    + eapply nonblk_same_trans; eassumption.
    + intros Hm x' Hx'. destruct (Hd1 Hm x' Hx'), (Hd2 Hm x' Hx'). fold n. lia.
    + exact HH2.
Qed.

Lemma ite_parts pos cond thenb elseb lc :
  placed im pos (fst (if_zero_then_else cond thenb elseb lc)) ->
  placed im (padd pos 1) elseb /\ placed im (padd pos (3 + List.length elseb)) thenb.
Proof.
  cbn [if_zero_then_else fst]. intros PL.
  apply placed_app in PL as [_ PL]. apply placed_app in PL as [PE PL]. apply placed_app in PL as [_ PL]. apply placed_app in PL as [PT _].
  rewrite <- !padd_add in *. cbn [List.length] in *. split; [exact PE|].
  replace (3 + List.length elseb)%nat with (1 + (List.length elseb + 2))%nat by lia. exact PT.
Qed.
Lemma ite_zero pos cond thenb elseb lc s s' :
  placed im pos (fst (if_zero_then_else cond thenb elseb lc)) ->
  rget s cond = Some 0 ->
  star im (padd pos (3 + List.length elseb)) s (padd pos (3 + List.length elseb + List.length thenb)) s' ->
  star im pos s (padd pos (List.length (fst (if_zero_then_else cond thenb elseb lc)))) s'.
Proof.
  cbn [if_zero_then_else fst]. intros [AC LB] RC ST.
  set (lt := lab (lc + 1)) in *. set (le := lab (lc + 2)) in *.
  assert (C0 : nth_error ([BEQ cond ZERO lt] ++ elseb ++ [JAL ZERO le; LAB lt] ++ thenb ++ [LAB le]) 0 = Some (BEQ cond ZERO lt)) by reflexivity.
  assert (C1 : nth_error ([BEQ cond ZERO lt] ++ elseb ++ [JAL ZERO le; LAB lt] ++ thenb ++ [LAB le]) (2 + List.length elseb) = Some (LAB lt)).
  { rewrite nth_error_app2 by (cbn [List.length]; lia). rewrite nth_error_app2 by (cbn [List.length]; lia).
    replace (2 + List.length elseb - List.length [BEQ cond ZERO lt] - List.length elseb)%nat with 1%nat by (cbn [List.length]; lia). reflexivity. }
  assert (Ilt : find_label (labels im) lt = Some (padd pos (2 + List.length elseb))) by (apply LB; exact C1).
  assert (C2 : nth_error ([BEQ cond ZERO lt] ++ elseb ++ [JAL ZERO le; LAB lt] ++ thenb ++ [LAB le]) (3 + List.length elseb + List.length thenb) = Some (LAB le)).
  { rewrite nth_error_app2 by (cbn [List.length]; lia). rewrite nth_error_app2 by (cbn [List.length]; lia).
    rewrite nth_error_app2 by (cbn [List.length]; lia). rewrite nth_error_app2 by (cbn [List.length]; lia).
    match goal with |- nth_error _ ?k = _ => replace k with 0%nat by (cbn [List.length]; lia) end. reflexivity. }
  eapply star_step; [apply (one_at_jump im pos _ 0 _ _ _ _ AC C0); intros a0; eapply step_BEQ0_taken; [exact RC|exact Ilt]|].
  eapply star_step; [apply (one_at_next im pos _ _ _ _ _ AC C1); intros a0; apply step_LAB|].
  replace (S (2 + List.length elseb)) with (3 + List.length elseb)%nat by lia.
  eapply star_trans; [exact ST|].
  eapply star_step; [apply (one_at_next im pos _ _ _ _ _ AC C2); intros a0; apply step_LAB|].
  match goal with |- star _ ?a _ ?b _ => replace b with a; [apply star_refl|] end.
  f_equal. rewrite !app_length. cbn [List.length]. lia.
Qed.
Lemma ite_nz pos cond thenb elseb lc s v s' :
  placed im pos (fst (if_zero_then_else cond thenb elseb lc)) ->
  rget s cond = Some v -> v <> 0 ->
  star im (padd pos 1) s (padd pos (1 + List.length elseb)) s' ->
  star im pos s (padd pos (List.length (fst (if_zero_then_else cond thenb elseb lc)))) s'.
Proof.
  cbn [if_zero_then_else fst]. intros [AC LB] RC NZ ST.
  set (lt := lab (lc + 1)) in *. set (le := lab (lc + 2)) in *.
  assert (C2 : nth_error ([BEQ cond ZERO lt] ++ elseb ++ [JAL ZERO le; LAB lt] ++ thenb ++ [LAB le]) (3 + List.length elseb + List.length thenb) = Some (LAB le)).
  { rewrite nth_error_app2 by (cbn [List.length]; lia). rewrite nth_error_app2 by (cbn [List.length]; lia).
    rewrite nth_error_app2 by (cbn [List.length]; lia). rewrite nth_error_app2 by (cbn [List.length]; lia).
    match goal with |- nth_error _ ?k = _ => replace k with 0%nat by (cbn [List.length]; lia) end. reflexivity. }
  assert (Ile : find_label (labels im) le = Some (padd pos (3 + List.length elseb + List.length thenb))) by (apply LB; exact C2).
  assert (C0 : nth_error ([BEQ cond ZERO lt] ++ elseb ++ [JAL ZERO le; LAB lt] ++ thenb ++ [LAB le]) 0 = Some (BEQ cond ZERO lt)) by reflexivity.
  assert (C1 : nth_error ([BEQ cond ZERO lt] ++ elseb ++ [JAL ZERO le; LAB lt] ++ thenb ++ [LAB le]) (1 + List.length elseb) = Some (JAL ZERO le)).
  { rewrite nth_error_app2 by (cbn [List.length]; lia). rewrite nth_error_app2 by (cbn [List.length]; lia).
    match goal with |- nth_error _ ?k = _ => replace k with 0%nat by (cbn [List.length]; lia) end. reflexivity. }
  eapply star_step; [apply (one_at_next im pos _ 0 _ _ _ AC C0); intros a0; eapply step_BEQ0_not; [exact RC|exact NZ]|].
  eapply star_trans; [exact ST|].
  eapply star_step; [apply (one_at_jump im pos _ _ _ _ _ _ AC C1); intros a0; eapply step_JAL0; exact Ile|].
  eapply star_step; [apply (one_at_next im pos _ _ _ _ _ AC C2); intros a0; apply step_LAB|].
  match goal with |- star _ ?a _ ?b _ => replace b with a; [apply star_refl|] end.
  f_equal. rewrite !app_length. cbn [List.length]. lia.
Qed.

(* r_load: the header test, then the Release walk or decrement + the Share walk *)
Lemma r_load_shape to_load existing lc cs lc' :
  r_load to_load existing lc = Ok (cs, lc') -> to_load <> [] ->
  let mb := pos_reg Fst (List.length existing) in
  exists thn lc1 els lc2,
    load_fields (S (List.length to_load)) to_load existing Last Release lc = Ok (thn, lc1) /\
    load_fields (S (List.length to_load)) to_load existing Last Share lc1 = Ok (els, lc2) /\
    cs = [LW TEMP mb 0] ++ fst (if_zero_then_else TEMP thn ([ADDI TEMP TEMP (-1); SW TEMP mb 0] ++ els) lc2).
Proof.
  intros H Hne mb. unfold r_load in H. destruct to_load as [|x r] eqn:Etl; [contradiction|]. rewrite <- Etl in *.
  destruct (r_fresh Fst existing) as [t|] eqn:Emb; [|discriminate]. cbn [rbind] in H. apply r_fresh_ok in Emb. subst t. fold mb in H.
  destruct (load_fields (S (List.length to_load)) to_load existing Last Release lc) as [[thn lc1]|] eqn:E1; [|discriminate]. cbn [rbind] in H.
  destruct (load_fields (S (List.length to_load)) to_load existing Last Share lc1) as [[els lc2]|] eqn:E2; [|discriminate]. cbn [rbind] in H.
  exists thn, lc1, els, lc2. split; [first [reflexivity|exact E1]|]. split; [first [reflexivity|exact E2]|].
  change REFERENCE_COUNT_OFFSET with 0 in H.
  destruct (if_zero_then_else TEMP thn ([ADDI TEMP TEMP (-1); SW TEMP mb 0] ++ els) lc2) as [c lc3] eqn:EI. inversion H. reflexivity.
Qed.

(* what the walk needs of the object at p: every block of the chain is a block; if the object stays alive (its count is
   not 0), the pointer slots that are shared are null or blocks; the counts are 64-bit values with room for one more
   reference per variable *)
Definition walk_pre (s : rstate) (p : Z) (to_load : ctx) : Prop :=
  lf_ok (S (List.length to_load)) X86.Release (hword s) to_load XLast p /\
  (hword s p <> 0 -> lf_ok (S (List.length to_load)) X86.Share (hword s) to_load XLast p) /\
  (forall x, is_blk x -> min_int + 1 <= hword s x /\ hword s x + Z.of_nat (List.length to_load) <= max_int).

Theorem rv_load_walk pos to_load existing lc cs lc' s p F :
  r_load to_load existing lc = Ok (cs, lc') -> to_load <> [] ->
  placed im pos cs ->
  rget s (pos_reg Fst (List.length existing)) = Some p -> is_blk p ->
  (exists h, rget s HEAP = Some h) -> (exists f0, rget s FREE = Some f0) ->
  walk_pre s p to_load ->
  let fuel := S (List.length to_load) in
  exists s', star im pos s (padd pos (List.length cs)) s' /\
    st_eqB (abs_heap F s')
      (if hword s p =? 0 then lf_abs fuel X86.Release (hword s) to_load XLast p (abs_heap F s)
       else lf_abs fuel X86.Share (hword s) to_load XLast p (Heap.dec p (abs_heap F s))) /\
    (forall i b, nth_error to_load i = Some b ->
       let A := lf_addrs fuel (hword s) to_load XLast p in
       let a := nth (List.length A - List.length to_load + i) A 0 in
       rget s' (rtp (2 * N.of_nat (List.length existing + i) + 1)) = Some (hword s (a + 8)) /\
       (bchi b <> Ext -> rget s' (rtp (2 * N.of_nat (List.length existing + i))) = Some (hword s a))) /\
    (forall k, (k < 2 * N.of_nat (List.length existing))%N -> rget s' (rtp k) = rget s (rtp k)) /\
    nonblk_same s s' /\ (exists h', rget s' HEAP = Some h') /\ rget s' FREE = rget s FREE.
Proof.
  intros Hx Hne PL P Hb (h & Hh) (f0 & Hf) (OKr & OKs & Room) fuel.
  destruct (r_load_shape _ _ _ _ _ Hx Hne) as (thn & lc1 & els & lc2 & Ethn & Eels & ->).
  set (mb := pos_reg Fst (List.length existing)) in *.
  pose proof (pos_reg_reserved Fst (List.length existing)) as M4. fold mb in M4. destruct (four_special mb M4) as (MZ & MT & MH & MF).
  pose proof (is_blk_valid_addr p Hb) as VA.
  assert (VA0 : valid_addr (p + 0)) by (now rewrite Z.add_0_r).
  apply placed_app in PL as [[AC0 _] PL]. cbn [List.length] in PL.
  set (eb := [ADDI TEMP TEMP (-1); SW TEMP mb 0] ++ els) in *.
  destruct (ite_parts _ _ _ _ _ PL) as [PE PT]. rewrite <- !padd_add in PE, PT.
  set (s0 := rset s TEMP (Some (hword s (p + 0)))).
  assert (ST0 : star im pos s (padd pos 1) s0).
  { exec_next AC0 0%nat step_LW; [exact P|reflexivity|exact VA0|]. apply star_refl. }
  assert (W0 : forall a, hword s0 a = hword s a) by (intros a; apply hword_rset).
  assert (RT0 : rget s0 TEMP = Some (hword s p)) by (unfold s0; rewrite Z.add_0_r; apply rget_rset_same; discriminate).
  assert (L0 : forall r, r <> TEMP -> rget s0 r = rget s r) by (intros r Hr; unfold s0; apply rget_rset_other; congruence).
  destruct (Room p Hb) as [Rlo Rhi].
  assert (Frame : forall s1 s' : rstate, (forall r, r <> TEMP -> rget s1 r = rget s r) ->
            (forall r, r <> TEMP -> r <> HEAP ->
               (forall k, (2 * N.of_nat (List.length existing) <= k <= 2 * N.of_nat (List.length existing + List.length to_load))%N -> r <> rtp k) ->
               rget s' r = rget s1 r) ->
            (forall k, (k < 2 * N.of_nat (List.length existing))%N -> rget s' (rtp k) = rget s (rtp k)) /\
            rget s' FREE = rget s FREE).
  { intros s1 s' L1 Hfr. split.
    - intros k Hk. rewrite Hfr, L1; [reflexivity|apply rtp_special|apply rtp_special|apply rtp_special|]. intros k' Hk' E'. apply rtp_inj in E'. lia.
    - rewrite Hfr, L1; [reflexivity|discriminate|discriminate|discriminate|]. intros k _. apply not_eq_sym, rtp_special. }
  assert (EL : padd pos (List.length ([LW TEMP mb 0] ++ fst (if_zero_then_else TEMP thn eb lc2))) =
               padd (padd pos 1) (List.length (fst (if_zero_then_else TEMP thn eb lc2)))) by (rewrite app_length, padd_add; reflexivity).
  rewrite EL. clear EL.
  destruct (Z.eqb_spec (hword s p) 0) as [H0|Hn0].
  - (* last reference: release the blocks, plain loads *)
    destruct (X86MemLoadChain.lf_ext X86.Release (hword s) (hword s0) (fun a _ => W0 a) fuel to_load XLast p (abs_heap F s0) (abs_heap F s)
                OKr)
      as (X1 & X2 & X3 & X4); [apply abs_heap_eqB; [exact W0|apply L0; discriminate|apply L0; discriminate]|].
    destruct (rv_load_fields fuel to_load existing Last Release lc thn lc1 _ s0 p F Ethn ltac:(unfold fuel; lia) (fun _ => Hne) PT)
      as (sb & STb & EQb & _ & Vb & Ob & NBb & _ & HHb).
    { rewrite L0 by exact MT. exact P. }
    { exists h. rewrite L0 by discriminate. exact Hh. }
    { exists f0. rewrite L0 by discriminate. exact Hf. }
    { exact X3. }
    { discriminate. }
    cbn [xbp xm] in Vb, Ob, EQb.
    destruct (Frame s0 sb L0 Ob) as [FrK FrF].
    exists sb. split; [|split; [|split; [|split; [exact FrK|split; [|split; [exact HHb|exact FrF]]]]]].
    + eapply star_trans; [exact ST0|]. eapply ite_zero; [exact PL|rewrite RT0, H0; reflexivity|]. rewrite <- !padd_add. rewrite <- padd_add in STb. exact STb.
    + eapply st_eqB_trans; [exact EQb|exact X4].
    + intros i b Hi A a. destruct (Vb i b Hi) as [VS VF]. rewrite X2 in VS, VF. rewrite !W0 in VS, VF. auto.
    + intros a0 Hna. rewrite NBb by exact Hna. apply W0.
  - (* other references remain: decrement the count, load and share *)
    pose proof (OKs Hn0) as OK.
    assert (Wd : wrap (hword s p + -1) = hword s p - 1) by (apply wrap_small; lia).
    set (s1 := rset s0 TEMP (Some (hword s p - 1))).
    set (sd := sstore s1 (p + 0) (hword s p - 1)).
    assert (R1b : rget s1 mb = Some p) by (unfold s1; rewrite rget_rset_other by congruence; rewrite L0 by exact MT; exact P).
    assert (Wsd : forall a, hword sd a = if a =? p then hword s p - 1 else hword s a).
    { intros a. unfold sd. rewrite Z.add_0_r, hword_sstore by (now apply is_blk_pos). unfold s1. rewrite hword_rset, W0. reflexivity. }
    assert (Wnb : forall a, ~ is_blk a -> hword sd a = hword s a).
    { intros a Hna. rewrite Wsd. destruct (Z.eqb_spec a p) as [->|]; [contradiction|reflexivity]. }
    assert (Ld : forall r, r <> TEMP -> rget sd r = rget s r).
    { intros r Hr. unfold sd. rewrite rget_sstore. unfold s1. rewrite rget_rset_other by congruence. now apply L0. }
    assert (EQd : st_eqB (abs_heap F sd) (Heap.dec p (abs_heap F s))).
    { unfold Heap.dec, abs_heap, reg_or0. cbn [Heap.m Heap.heap Heap.free Heap.frontier]. rewrite !Ld by discriminate.
      split; [reflexivity|]. split; [reflexivity|]. split; [reflexivity|].
      intros x Hx'. cbn [Heap.m]. unfold Heap.set_hdr, Heap.upd, abs_mem. cbn [Heap.hdr Heap.ps]. rewrite !Wsd.
      destruct (Z.eqb_spec (x + 16) p) as [E'|_]; [exfalso; eapply (blk_off_ne x p 16); eauto; lia|].
      destruct (Z.eqb_spec (x + 32) p) as [E'|_]; [exfalso; eapply (blk_off_ne x p 32); eauto; lia|].
      destruct (Z.eqb_spec (x + 48) p) as [E'|_]; [exfalso; eapply (blk_off_ne x p 48); eauto; lia|].
      destruct (Z.eqb_spec x p) as [->|]; reflexivity. }
    destruct (X86MemLoadChain.lf_ext X86.Share (hword s) (hword sd) Wnb fuel to_load XLast p (abs_heap F sd) (Heap.dec p (abs_heap F s)) OK EQd) as (X1 & X2 & X3 & X4).
    unfold eb in PE. apply placed_app in PE as [[CE0 _] PE1]. rewrite <- padd_add in PE1. cbn [List.length] in PE1.
    destruct (rv_load_fields fuel to_load existing Last Share lc1 els lc2 _ sd p F Eels ltac:(unfold fuel; lia) (fun _ => Hne) PE1)
      as (se & STe & EQe & _ & Ve & Oe & NBe & _ & HHe).
    { rewrite Ld by exact MT. exact P. }
    { exists h. rewrite Ld by discriminate. exact Hh. }
    { exists f0. rewrite Ld by discriminate. exact Hf. }
    { exact X3. }
    { intros _ x Hx'. destruct (Room x Hx'). rewrite Wsd. destruct (x =? p); lia. }
    cbn [xbp xm] in Ve, Oe, EQe.
    destruct (Frame sd se Ld Oe) as [FrK FrF].
    exists se. split; [|split; [|split; [|split; [exact FrK|split; [|split; [exact HHe|exact FrF]]]]]].
    + eapply star_trans; [exact ST0|]. eapply ite_nz; [exact PL|exact RT0|exact Hn0|].
      rewrite <- !padd_add.
      exec_next CE0 0%nat step_ADDI; [exact RT0|reflexivity|]. rewrite Wd. fold s1.
      exec_next CE0 1%nat step_SW; [exact R1b|unfold s1; apply rget_rset_same; discriminate|reflexivity|exact VA0|]. fold sd.
      rewrite <- !padd_add in STe. unfold eb. rewrite app_length. cbn [List.length]. rewrite <- !padd_S.
      match goal with |- star _ ?a _ ?b _ => match type of STe with star _ ?a' _ ?b' _ => replace a with a' by (f_equal; lia); replace b with b' by (f_equal; lia) end end.
      exact STe.
    + eapply st_eqB_trans; [exact EQe|exact X4].
    + intros i b Hi A a. destruct (Ve i b Hi) as [VS VF]. rewrite X2 in VS, VF. fold A a in VS, VF.
      assert (Hi' : (i < List.length to_load)%nat) by (apply nth_error_Some; congruence).
      assert (LA : (List.length to_load <= List.length A)%nat) by (apply X86MemLoadChain.lf_addrs_length; unfold fuel; lia).
      assert (Hin : In a A) by (apply nth_In; lia).
      destruct (X86MemLoadChain.lf_addrs_in X86.Share (hword s) fuel to_load XLast p a OK Hin) as (q & j & Hq & Hj & Ea). fo.
      assert (N1 : ~ is_blk a) by (rewrite Ea; now apply field_not_blk).
      assert (N2 : ~ is_blk (a + 8)).
      { rewrite Ea. replace (q + field_offset Fst j + 8) with (q + field_offset Snd j) by (rewrite !fo_val; cbn [tnum_n]; lia).
        now apply field_not_blk. }
      rewrite (Wnb _ N1) in VF. rewrite (Wnb _ N2) in VS. auto.
    + intros a0 Hna. rewrite NBe by exact Hna. now apply Wnb.
Qed.

(* r_load of any number of variables = Heap.load_object, with its frame *)
Theorem rv_load_object pos to_load existing lc cs lc' s p F :
  r_load to_load existing lc = Ok (cs, lc') -> to_load <> [] ->
  placed im pos cs ->
  rget s (rtp (2 * N.of_nat (List.length existing))) = Some p -> is_blk p ->
  (exists h, rget s HEAP = Some h) -> (exists f0, rget s FREE = Some f0) ->
  lf_ok (S (List.length to_load)) X86.Release (hword s) to_load XLast p ->
  (hword s p <> 0 -> lf_share_ok (S (List.length to_load)) (hword s) to_load XLast p) ->
  (forall x, is_blk x -> min_int + 1 <= hword s x /\ hword s x + Z.of_nat (List.length to_load) <= max_int) ->
  exists s', star im pos s (padd pos (List.length cs)) s' /\
    st_eqB (abs_heap F s') (Heap.load_object (Heap.nlinks (List.length to_load)) p (abs_heap F s)) /\
    (forall i b, nth_error to_load i = Some b ->
       let A := lf_addrs (S (List.length to_load)) (hword s) to_load XLast p in
       let a := nth (List.length A - List.length to_load + i) A 0 in
       rget s' (rtp (2 * N.of_nat (List.length existing + i) + 1)) = Some (hword s (a + 8)) /\
       (bchi b <> Ext -> rget s' (rtp (2 * N.of_nat (List.length existing + i))) = Some (hword s a))) /\
    (forall k, (k < 2 * N.of_nat (List.length existing))%N -> rget s' (rtp k) = rget s (rtp k)) /\
    nonblk_same s s' /\ (exists h', rget s' HEAP = Some h') /\ rget s' FREE = rget s FREE.
Proof.
  intros Hx Hne PL P Hb HH HF OKr OK Room.
  assert (P' : rget s (pos_reg Fst (List.length existing)) = Some p) by (rewrite pos_reg_rtp; cbn [tnum_n]; rewrite N.add_0_r; exact P).
  destruct (rv_load_walk pos to_load existing lc cs lc' s p F Hx Hne PL P' Hb HH HF)
    as (s' & ST & EQ & V & O & NB & HH' & FF).
  { split; [exact OKr|]. split; [|exact Room]. intros Hn. apply X86MemLoadChain.lf_share_ok_lf_ok. exact (OK Hn). }
  exists s'. split; [exact ST|]. split; [|auto 12].
  eapply st_eqB_trans; [exact EQ|]. unfold Heap.load_object.
  change (Heap.hdr (Heap.m (abs_heap F s) p)) with (hword s p).
  assert (PS : X86MemLoadChain.ps_w (hword s) (abs_heap F s)) by (intros q; reflexivity).
  destruct (Z.eqb_spec (hword s p) 0) as [_|Hn].
  - rewrite X86MemLoadChain.lf_abs_release_load_object; [apply st_eqB_refl|exact Hne|exact PS].
  - unfold Heap.load_object_share. apply X86MemLoadChain.lf_abs_share_load_object; [exact Hne|apply X86MemLoadChain.ps_w_dec, PS|exact (OK Hn)].
Qed.

Theorem rv_load_chain pos to_load existing lc cs lc' s p F :
  r_load to_load existing lc = Ok (cs, lc') -> to_load <> [] ->
  placed im pos cs ->
  rget s (rtp (2 * N.of_nat (List.length existing))) = Some p -> is_blk p ->
  (exists h, rget s HEAP = Some h) -> (exists f0, rget s FREE = Some f0) ->
  lf_share_ok (S (List.length to_load)) (hword s) to_load XLast p ->
  (forall x, is_blk x -> min_int + 1 <= hword s x /\ hword s x + Z.of_nat (List.length to_load) <= max_int) ->
  exists s', star im pos s (padd pos (List.length cs)) s' /\
    st_eqB (abs_heap F s') (Heap.load_object (Heap.nlinks (List.length to_load)) p (abs_heap F s)) /\
    (forall i b, nth_error to_load i = Some b ->
       let A := lf_addrs (S (List.length to_load)) (hword s) to_load XLast p in
       let a := nth (List.length A - List.length to_load + i) A 0 in
       rget s' (rtp (2 * N.of_nat (List.length existing + i) + 1)) = Some (hword s (a + 8)) /\
       (bchi b <> Ext -> rget s' (rtp (2 * N.of_nat (List.length existing + i))) = Some (hword s a))) /\
    (forall k, (k < 2 * N.of_nat (List.length existing))%N -> rget s' (rtp k) = rget s (rtp k)) /\
    nonblk_same s s' /\ (exists h', rget s' HEAP = Some h') /\ rget s' FREE = rget s FREE.
Proof.
  intros Hx Hne PL P Hb HH HF OK Room.
  apply (rv_load_object pos to_load existing lc cs lc' s p F Hx Hne PL P Hb HH HF); [|intros _; exact OK|exact Room].
  exact (X86MemLoadChain.lf_ok_release _ _ _ _ _ _ (X86MemLoadChain.lf_share_ok_lf_ok _ _ _ _ _ OK)).
Qed.

(* at most three variables: one block, `Heap.load_object 0`; the slot hypotheses are needed only if the object stays alive *)
Theorem rv_load_full pos to_load existing lc cs lc' s p F :
  r_load to_load existing lc = Ok (cs, lc') -> to_load <> [] -> (List.length to_load <= 3)%nat ->
  placed im pos cs ->
  let E := List.length existing in let n := List.length to_load in
  rget s (rtp (2 * N.of_nat E)) = Some p -> is_blk p ->
  (exists h0, rget s HEAP = Some h0) -> (exists f0, rget s FREE = Some f0) ->
  (hword s p <> 0 ->
     (hword s (p + 16) = 0 \/ is_blk (hword s (p + 16))) /\ (hword s (p + 32) = 0 \/ is_blk (hword s (p + 32))) /\
     (hword s (p + 48) = 0 \/ is_blk (hword s (p + 48))) /\
     (forall j, (j < 3 - n)%nat -> hword s (p + 16 * Z.of_nat (j + 1)) = 0) /\
     (forall i b, nth_error to_load i = Some b -> bchi b = Ext -> hword s (slot_addr p n i) = 0)) ->
  (forall x, is_blk x -> min_int + 1 <= hword s x /\ hword s x + 3 <= max_int) ->
  exists s', star im pos s (padd pos (List.length cs)) s' /\
    st_eqB (abs_heap F s') (Heap.load_object 0 p (abs_heap F s)) /\
    (forall i b, nth_error to_load i = Some b ->
       rget s' (rtp (2 * N.of_nat (E + i) + 1)) = Some (hword s (slot_addr p n i + 8)) /\
       (bchi b <> Ext -> rget s' (rtp (2 * N.of_nat (E + i))) = Some (hword s (slot_addr p n i)))) /\
    (forall k, (k < 2 * N.of_nat E)%N -> rget s' (rtp k) = rget s (rtp k)) /\
    (forall a, ~ is_blk a -> hword s' a = hword s a) /\
    (exists h', rget s' HEAP = Some h') /\ rget s' FREE = rget s FREE.
Proof.
  intros LD NE LE PL E n RP BP HH HF SH BND.
  assert (Hn : (0 < n)%nat) by (unfold n; destruct to_load; [congruence|cbn; lia]).
  assert (RL : rest_len n (3 - X86.bp_n XLast) = O) by (rewrite X86MemStoreChain.rest_len_val; change (N.to_nat (3 - X86.bp_n XLast)) with 3%nat; unfold n; lia).
  assert (NIL : forall f, lf_ptr f (hword s) [] X86.Other p = p /\ lf_addrs f (hword s) [] X86.Other p = []) by (intros [|f]; auto).
  assert (AD : lf_addrs (S n) (hword s) to_load XLast p = [p + 16; p + 32; p + 48]).
  { cbn [lf_addrs]. fold n. rewrite RL. cbn [firstn]. rewrite (proj1 (NIL n)), (proj2 (NIL n)). destruct to_load; [congruence|reflexivity]. }
  assert (SA : forall i, (i < n)%nat -> nth (3 - n + i) [p + 16; p + 32; p + 48] 0 = slot_addr p n i).
  { intros i Hi. unfold slot_addr. replace (3 - n + i + 1)%nat with (S (3 - n + i)) by lia. destruct (3 - n + i)%nat as [|[|[|m]]] eqn:Em; [reflexivity..|lia]. }
  destruct (rv_load_object pos to_load existing lc cs lc' s p F LD NE PL RP BP HH HF) as (s' & ST & EQ & V & OT & NB & HH' & FF).
  - (* the chain is the block p *)
    cbn [lf_ok]. fold n. rewrite RL. cbn [firstn skipn]. rewrite (proj1 (NIL n)). destruct to_load as [|b0 r]; [congruence|].
    split; [destruct n; exact I|]. split; [exact BP|apply X86MemLoad.lv_kids_release].
  - (* the object stays alive: the slots *)
    intros Hp. destruct (SH Hp) as (S1 & S2 & S3 & Z0 & EX).
    cbn [lf_share_ok]. fold n. rewrite RL. cbn [firstn skipn]. rewrite (proj1 (NIL n)). unfold n in *. destruct to_load as [|b0 r]; [congruence|].
    split; [destruct (List.length (b0 :: r)); exact I|]. split; [exact BP|]. change (3 - X86.bp_n XLast)%N with 3%N. fo. split; [|split].
    + intros j Hj. assert (C : (j = 0 \/ j = 1 \/ j = 2)%N) by lia. destruct C as [->|[->| ->]]; assumption.
    + intros j Hj. specialize (Z0 (N.to_nat j) ltac:(lia)). replace (p + field_offset Fst j) with (p + 16 * Z.of_nat (N.to_nat j + 1)); [exact Z0|].
      rewrite fo_val. cbn [tnum_n]. lia.
    + intros i b Hi KE. assert (Li : (i < List.length (b0 :: r))%nat) by (apply nth_error_Some; congruence).
      specialize (EX i b Hi KE). unfold slot_addr in EX.
      replace (p + field_offset Fst (3 - N.of_nat (List.length (b0 :: r)) + N.of_nat i)) with (p + 16 * Z.of_nat (3 - List.length (b0 :: r) + i + 1)); [exact EX|].
      rewrite fo_val. cbn [tnum_n]. lia.
  - intros x Hx. destruct (BND x Hx). fold n. lia.
  - exists s'. split; [exact ST|]. split; [|split; [|split; [exact OT|split; [exact NB|split; [exact HH'|exact FF]]]]].
    + fold n in EQ. replace (Heap.nlinks n) with O in EQ; [exact EQ|]. unfold Heap.nlinks. destruct (Nat.leb_spec n 3); [reflexivity|lia].
    + intros i b Hi. assert (Li : (i < n)%nat) by (apply nth_error_Some; congruence).
      specialize (V i b Hi). cbv zeta in V. fold n in V. rewrite AD in V. cbn [List.length] in V. rewrite (SA i Li) in V. exact V.
Qed.
End LoadChain.

Print Assumptions rv_load_chain.
