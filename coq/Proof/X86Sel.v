(* Instruction-selection lemmas for the x86-64 back end (L1 -> L2 of DESIGN.md C06): the code the
   MODEL of axcut2x86_64::code emits for one abstract operation, executed on the ISA semantics of
   Sem/X86Sem.v, has the abstract operation's effect for EVERY placement of target and operands in
   registers or spill slots and every register/memory contents, and changes nothing but the target,
   the scratch register rcx and the flags. *)
From Coq Require Import List ZArith NArith String Bool Lia FMapPositive.
From SCC Require Import Base.Sexp Lang.AxSyn Sem.AxSem Model.Backend Model.X86 Sem.X86Sem Generated.Constants Proof.X86State.
Import ListNotations.
Open Scope Z_scope.

Lemma STACK_is_0 : STACK = 0%N. Proof. reflexivity. Qed.
Lemma TEMP_is_1 : TEMP = 1%N. Proof. reflexivity. Qed.

Lemma ea_stack s sp p k : frame_ok s sp -> slot_ok p -> ea s STACK (stack_offset p) k = k (slot_addr sp p).
Proof.
  intros F P. destruct (slot_addr_facts sp p (proj2 F) P) as (_ & _ & _ & LE & _).
  destruct F as (H & _). unfold ea, need. rewrite STACK_is_0, H. fold (slot_addr sp p).
  destruct (in_stack (slot_addr sp p)); [|reflexivity].
  destruct (Z.ltb_spec (slot_addr sp p) sp); [lia|reflexivity].
Qed.

Section Steps.
Variable im : image.
Variables (s : xstate) (sp : Z).
Hypothesis F : frame_ok s sp.

Lemma step_MOV a b : step im (MOV a b) s = Next (rset s a (rget s b)).
Proof. reflexivity. Qed.
Lemma step_MOVL_slot a p : slot_ok p -> step im (MOVL a STACK (stack_offset p)) s = Next (rset s a (sget s sp p)).
Proof. intros P. cbn [step]. rewrite (ea_stack s sp) by (exact F || assumption). unfold withm. now rewrite mload_slot. Qed.
Lemma step_MOVS_slot a p : slot_ok p -> step im (MOVS a STACK (stack_offset p)) s = Next (sset s sp p (rget s a)).
Proof. intros P. cbn [step]. rewrite (ea_stack s sp) by (exact F || assumption). unfold withm. now rewrite mstore_slot. Qed.

Lemma step_arith_rr f a b x y :
  rget s a = Some x -> rget s b = Some y ->
  arith_rr f s a b = Next (set_flags (rset s a (Some (wrap (f x y)))) None).
Proof. intros A B. unfold arith_rr, need. now rewrite A, B. Qed.
Lemma step_arith_rm f a p x y :
  slot_ok p -> rget s a = Some x -> sget s sp p = Some y ->
  arith_rm f s a STACK (stack_offset p) = Next (set_flags (rset s a (Some (wrap (f x y)))) None).
Proof.
  intros P A B. unfold arith_rm, need. rewrite A, (ea_stack s sp) by (exact F || assumption). unfold withm.
  rewrite mload_slot by auto. now rewrite B.
Qed.
Lemma step_arith_mr f p b x y :
  slot_ok p -> sget s sp p = Some x -> rget s b = Some y ->
  arith_mr f s STACK (stack_offset p) b = Next (set_flags (sset s sp p (Some (wrap (f x y)))) None).
Proof.
  intros P A B. unfold arith_mr. rewrite (ea_stack s sp) by (exact F || assumption). unfold withm, need.
  rewrite mload_slot by auto. rewrite A, B. now rewrite mstore_slot.
Qed.
End Steps.

(* the helper functions of code.rs *)
Section Helpers.
Variable im : image.

Lemma move_to_register_ok s sp r t :
  frame_ok s sp -> loc_ok t ->
  exec_straight im (move_to_register r t) s = Some (rset s r (lget s sp t)).
Proof.
  intros F T. destruct t as [q|p]; cbn [move_to_register exec_straight lget].
  - reflexivity.
  - now rewrite (step_MOVL_slot im s sp F).
Qed.
Lemma move_from_register_ok s sp t r :
  frame_ok s sp -> loc_ok t ->
  exec_straight im (move_from_register t r) s = Some (lset s sp t (rget s r)).
Proof.
  intros F T. destruct t as [q|p]; cbn [move_from_register exec_straight lset].
  - reflexivity.
  - now rewrite (step_MOVS_slot im s sp F).
Qed.

(* the three families <op>_to_register / <op>_to_spill *)
Inductive aop := AAdd | ASub | AMul.
Definition aop_f (o : aop) : Z -> Z -> Z := match o with AAdd => Z.add | ASub => Z.sub | AMul => Z.mul end.
Definition to_register (o : aop) := match o with AAdd => add_to_register | ASub => sub_to_register | AMul => mul_to_register end.
Definition to_spill (o : aop) := match o with AAdd => add_to_spill | ASub => sub_to_spill | AMul => mul_to_spill end.

Lemma to_register_ok o s sp r t x y :
  frame_ok s sp -> loc_ok t -> rget s r = Some x -> lget s sp t = Some y ->
  exec_straight im (to_register o r t) s = Some (set_flags (rset s r (Some (wrap (aop_f o x y)))) None).
Proof.
  intros F T X Y. destruct t as [q|p]; cbn [lget] in Y; destruct o; cbn [to_register add_to_register sub_to_register mul_to_register exec_straight step aop_f].
  all: try (rewrite (step_arith_rr s _ _ _ x y X Y); reflexivity).
  all: rewrite (step_arith_rm s sp F _ _ _ x y T X Y); reflexivity.
Qed.

Lemma to_spill_ok o s sp q t x y :
  frame_ok s sp -> slot_ok q -> loc_ok t ->
  sget s sp q = Some x -> lget s sp t = Some y ->
  exec_straight im (to_spill o q t) s =
    Some (set_flags (sset (match t with XR _ => s | XS _ => rset s TEMP (Some y) end) sp q (Some (wrap (aop_f o x y)))) None).
Proof.
  intros F Q T X Y. destruct t as [r|p]; cbn [lget] in Y.
  - destruct o; cbn [to_spill add_to_spill sub_to_spill mul_to_spill exec_straight step aop_f];
      rewrite (step_arith_mr s sp F _ _ _ x y Q X Y); reflexivity.
  - assert (F1 : frame_ok (rset s TEMP (sget s sp p)) sp) by (apply frame_ok_rset; [discriminate|exact F]).
    destruct o; cbn [to_spill add_to_spill sub_to_spill mul_to_spill exec_straight aop_f];
      rewrite (step_MOVL_slot im s sp F) by exact T; cbn [step];
      rewrite (step_arith_mr _ sp F1 _ _ _ x y Q); rewrite ?sget_rset, ?rget_rset_same, ?Y; auto.
Qed.
End Helpers.

Definition preserved (s s' : xstate) (sp : Z) (t : xtemp) : Prop :=
  (forall l, loc_ok l -> l <> t -> l <> XR TEMP -> lget s' sp l = lget s sp l) /\
  heap s' = heap s /\ out s' = out s /\ frame_ok s' sp.

Lemma xtemp_eqb_spec a b : reflect (a = b) (xtemp_eqb a b).
Proof.
  destruct a as [x|x], b as [y|y]; cbn; try (constructor; congruence);
    destruct (N.eqb_spec x y); constructor; congruence.
Qed.

(* reading a location through a chain of writes *)
Ltac rd :=
  repeat (cbn [lget lset];
    first [ rewrite rget_set_flags | rewrite sget_set_flags | rewrite rget_sset | rewrite sget_rset
          | rewrite rget_rset_same | rewrite sget_sset_same
          | rewrite rget_rset_other by congruence
          | rewrite sget_sset_other by (first [assumption | congruence]) ]).
Ltac locs :=
  first [ assumption | (apply not_eq_sym; assumption) | (cbn; congruence) | congruence
        | (cbn; intro; congruence) ].
Ltac frame :=
  repeat first [ apply frame_ok_set_flags | apply frame_ok_sset | apply frame_ok_rset; [first [congruence | (vm_compute; congruence)]|] | assumption ].
Ltac pres :=
  split; [ let l := fresh "l" in let L := fresh "L" in intros l L ? ?; destruct l; cbn [loc_ok] in L; rd; reflexivity
         | split; [reflexivity | split; [reflexivity | frame]] ].

Section Arith.
Variable im : image.

(* the operation computed in a register r that is not the second operand: r := s1; r := r op s2 *)
Lemma via_register_ok o s sp r s1 s2 a b :
  frame_ok s sp -> r <> 0%N -> loc_ok s1 -> loc_ok s2 -> s2 <> XR r ->
  lget s sp s1 = Some a -> lget s sp s2 = Some b ->
  exec_straight im (move_to_register r s1 ++ to_register o r s2) s =
    Some (set_flags (rset (rset s r (lget s sp s1)) r (Some (wrap (aop_f o a b)))) None).
Proof.
  intros F R S1 S2 N A B. rewrite exec_straight_app, (move_to_register_ok im s sp r s1 F S1).
  assert (F1 : frame_ok (rset s r (lget s sp s1)) sp) by frame.
  apply (to_register_ok im o _ sp r s2 a b F1 S2); [rewrite rget_rset_same; exact A|].
  rewrite lget_rset_other by exact N. exact B.
Qed.

(* op_commutative for any of the three operations, target t and operands s1 s2 anywhere, any aliasing; only the
   case where the target is the second operand and not the first swaps the operands *)
Lemma x86_op_ok o s sp t s1 s2 a b :
  o <> ASub \/ t <> s2 \/ t = s1 ->
  frame_ok s sp -> loc_ok t -> loc_ok s1 -> loc_ok s2 ->
  t <> XR TEMP -> s1 <> XR TEMP -> s2 <> XR TEMP ->
  lget s sp s1 = Some a -> lget s sp s2 = Some b ->
  exists s', exec_straight im (op_commutative (to_register o) (to_spill o) t s1 s2) s = Some s' /\
             lget s' sp t = Some (wrap (aop_f o a b)) /\ preserved s s' sp t.
Proof.
  intros Ho F T S1 S2 NT N1 N2 A B.
  assert (SP : sp_ok sp) by apply F. assert (T0 : TEMP <> 0%N) by discriminate.
  assert (COMM : t = s2 -> t <> s1 -> aop_f o b a = aop_f o a b).
  { intros E2 E1. destruct Ho as [Ho|[Ho|Ho]]; [|contradiction|contradiction]. destruct o; cbn; try lia; congruence. }
  unfold op_commutative. destruct t as [tr|tp]; cbn [loc_ok] in T.
  - destruct (xtemp_eqb_spec (XR tr) s1) as [E1|E1]; [|destruct (xtemp_eqb_spec (XR tr) s2) as [E2|E2]].
    + subst s1. cbn [lget] in A. rewrite (to_register_ok im o s sp tr s2 a b F S2 A B).
      eexists; split; [reflexivity|]. split; [rd; reflexivity|pres].
    + rewrite <- (COMM E2 E1). subst s2. cbn [lget] in B. rewrite (to_register_ok im o s sp tr s1 b a F S1 B A).
      eexists; split; [reflexivity|]. split; [rd; reflexivity|pres].
    + rewrite (via_register_ok o s sp tr s1 s2 a b F T S1 S2 (not_eq_sym E2) A B).
      eexists; split; [reflexivity|]. split; [rd; reflexivity|pres].
  - destruct (xtemp_eqb_spec (XS tp) s1) as [E1|E1]; [|destruct (xtemp_eqb_spec (XS tp) s2) as [E2|E2]].
    + subst s1. cbn [lget] in A. rewrite (to_spill_ok im o s sp tp s2 a b F T S2 A B).
      eexists; split; [reflexivity|]. split; [rd; reflexivity|].
      destruct s2; pres.
    + rewrite <- (COMM E2 E1). subst s2. cbn [lget] in B. rewrite (to_spill_ok im o s sp tp s1 b a F T S1 B A).
      eexists; split; [reflexivity|]. split; [rd; reflexivity|].
      destruct s1; pres.
    + rewrite app_assoc, exec_straight_app, (via_register_ok o s sp TEMP s1 s2 a b F T0 S1 S2 N2 A B).
      cbn [exec_straight]. rewrite (step_MOVS_slot im _ sp) by (frame || exact T).
      eexists; split; [reflexivity|]. split; [rd; reflexivity|pres].
Qed.
Theorem x86_op_commutative_ok o s sp t s1 s2 a b :
  o <> ASub ->
  frame_ok s sp -> loc_ok t -> loc_ok s1 -> loc_ok s2 ->
  t <> XR TEMP -> s1 <> XR TEMP -> s2 <> XR TEMP ->
  lget s sp s1 = Some a -> lget s sp s2 = Some b ->
  exists s', exec_straight im (op_commutative (to_register o) (to_spill o) t s1 s2) s = Some s' /\
             lget s' sp t = Some (wrap (aop_f o a b)) /\ preserved s s' sp t.
Proof. intros Ho. apply x86_op_ok. now left. Qed.

(* `sub` is op_commutative unless the target is the second operand (and not the first) *)
Lemma sub_as_op t s1 s2 : t <> s2 \/ t = s1 ->
  sub t s1 s2 = op_commutative (to_register ASub) (to_spill ASub) t s1 s2.
Proof.
  intros H. unfold sub, op_commutative. cbn [to_register to_spill].
  destruct t as [r|p].
  - destruct (xtemp_eqb_spec (XR r) s1); [reflexivity|]. destruct (xtemp_eqb_spec (XR r) s2); [tauto|reflexivity].
  - destruct (xtemp_eqb_spec (XS p) s1); [reflexivity|]. destruct (xtemp_eqb_spec (XS p) s2); [tauto|reflexivity].
Qed.
Theorem x86_sub_ok s sp t s1 s2 a b :
  frame_ok s sp -> loc_ok t -> loc_ok s1 -> loc_ok s2 ->
  t <> XR TEMP -> s1 <> XR TEMP -> s2 <> XR TEMP ->
  lget s sp s1 = Some a -> lget s sp s2 = Some b ->
  exists s', exec_straight im (sub t s1 s2) s = Some s' /\
             lget s' sp t = Some (wrap (a - b)) /\ preserved s s' sp t.
Proof.
  intros F T S1 S2 NT N1 N2 A B.
  destruct (xtemp_eqb_spec t s1) as [E1|E1]; [|destruct (xtemp_eqb_spec t s2) as [E2|E2]].
  1,3: rewrite sub_as_op by tauto; apply (x86_op_ok ASub); auto.
  (* t := s1 - t: computed in rcx *)
  assert (SP : sp_ok sp) by apply F. assert (T0 : TEMP <> 0%N) by discriminate.
  subst s2. unfold sub. change sub_to_register with (to_register ASub).
  destruct t as [tr|tp]; cbn [loc_ok] in T.
  - destruct (xtemp_eqb_spec (XR tr) s1); [contradiction|]. destruct (xtemp_eqb_spec (XR tr) (XR tr)); [|contradiction].
    rewrite app_assoc, exec_straight_app, (via_register_ok ASub s sp TEMP s1 _ a b F T0 S1 S2 NT A B).
    cbn [exec_straight step]. eexists; split; [reflexivity|]. split; [rd; reflexivity|pres].
  - destruct (xtemp_eqb_spec (XS tp) s1); [contradiction|].
    rewrite app_assoc, exec_straight_app, (via_register_ok ASub s sp TEMP s1 _ a b F T0 S1 S2 NT A B).
    cbn [exec_straight]. rewrite (step_MOVS_slot im _ sp) by (frame || exact T).
    eexists; split; [reflexivity|]. split; [rd; reflexivity|pres].
Qed.

(* mov between any two temporaries (the instruction the parallel-move code is made of) *)
Theorem x86_mov_ok s sp t src :
  frame_ok s sp -> loc_ok t -> loc_ok src -> t <> XR TEMP -> src <> XR TEMP ->
  exists s', exec_straight im (x_mov t src) s = Some s' /\
             lget s' sp t = lget s sp src /\ preserved s s' sp t.
Proof.
  intros F T S NT NS. assert (SP : sp_ok sp) by apply F.
  unfold x_mov. destruct src as [sr|sq]; [|destruct t as [tr|tq]].
  - rewrite (move_from_register_ok im s sp t sr F T).
    eexists; split; [reflexivity|]. split; [apply lget_lset_same|].
    destruct t; cbn [loc_ok] in T; pres.
  - rewrite (move_to_register_ok im s sp tr (XS sq) F S).
    eexists; split; [reflexivity|]. split; [rd; reflexivity|]. cbn [loc_ok] in T. pres.
  - rewrite exec_straight_app, (move_to_register_ok im s sp TEMP (XS sq) F S).
    assert (F1 : frame_ok (rset s TEMP (lget s sp (XS sq))) sp) by frame.
    rewrite (move_from_register_ok im _ sp (XS tq) TEMP F1 T).
    eexists; split; [reflexivity|]. split; [rd; reflexivity|]. cbn [loc_ok] in T, S. pres.
Qed.

(* literals: every 64-bit value, register or spill target *)
Theorem x86_load_immediate_ok s sp t i :
  frame_ok s sp -> loc_ok t -> t <> XR TEMP ->
  exists s', exec_straight im (x_load_immediate t i) s = Some s' /\
             lget s' sp t = Some i /\ preserved s s' sp t.
Proof.
  intros F T NT. assert (SP : sp_ok sp) by apply F.
  unfold x_load_immediate. destruct t as [tr|tp]; cbn [loc_ok] in T.
  - cbn [exec_straight step]. eexists; split; [reflexivity|]. split; [rd; reflexivity|pres].
  - destruct (fits_i32 i) eqn:FI.
    + cbn [exec_straight step]. replace (fits32 i) with true by (symmetry; exact FI).
      rewrite (ea_stack s sp) by (exact F || assumption). unfold withm. rewrite mstore_slot by auto.
      eexists; split; [reflexivity|]. split; [rd; reflexivity|pres].
    + cbn [exec_straight]. change (step im (MOVI TEMP i) s) with (Next (rset s TEMP (Some i))). cbv iota beta.
      rewrite (step_MOVS_slot im _ sp) by (frame || exact T).
      eexists; split; [reflexivity|]. split; [rd; reflexivity|pres].
Qed.

(* comparison followed by a conditional jump: branches exactly when the AxCut comparison holds *)
Theorem x86_compare_ok s sp t1 t2 a b :
  frame_ok s sp -> loc_ok t1 -> loc_ok t2 -> t1 <> XR TEMP -> t2 <> XR TEMP ->
  lget s sp t1 = Some a -> lget s sp t2 = Some b ->
  exists s', exec_straight im (compare t1 t2) s = Some s' /\ flags s' = Some (a, b) /\
             (forall l, loc_ok l -> l <> XR TEMP -> lget s' sp l = lget s sp l) /\
             heap s' = heap s /\ out s' = out s /\ frame_ok s' sp.
Proof.
  intros F T1 T2 N1 N2 A B. assert (SP : sp_ok sp) by apply F.
  destruct t1 as [r1|p1], t2 as [r2|p2]; cbn [lget loc_ok] in *; cbn [compare exec_straight];
    [cbn [step] | cbn [step] | cbn [step] | ].
  - unfold need. rewrite A, B. eexists; split; [reflexivity|]. repeat split; try reflexivity; try apply F.
  - unfold need. rewrite A, (ea_stack s sp) by (exact F || assumption). unfold withm. rewrite mload_slot by auto. rewrite B.
    eexists; split; [reflexivity|]. repeat split; try reflexivity; try apply F.
  - rewrite (ea_stack s sp) by (exact F || assumption). unfold withm, need. rewrite mload_slot by auto. rewrite A, B.
    eexists; split; [reflexivity|]. repeat split; try reflexivity; try apply F.
  - rewrite (step_MOVL_slot im s sp F) by exact T1.
    assert (F1 : frame_ok (rset s TEMP (sget s sp p1)) sp) by frame.
    rewrite A in *. cbn [step]. unfold need. rewrite rget_rset_same, (ea_stack _ sp) by (exact F1 || assumption). unfold withm.
    rewrite mload_slot by auto. rewrite sget_rset, B.
    eexists; split; [reflexivity|]. split; [reflexivity|].
    split; [|split; [reflexivity|split; [reflexivity|frame]]].
    intros l L NL. destruct l; cbn [loc_ok] in L; rd; reflexivity.
Qed.
Theorem x86_compare_zero_ok s sp t a :
  frame_ok s sp -> loc_ok t -> lget s sp t = Some a ->
  exec_straight im (compare_immediate t 0) s = Some (set_flags s (Some (a, 0))).
Proof.
  intros F T A. destruct t as [r|p]; cbn [lget loc_ok] in *; cbn [compare_immediate exec_straight step].
  - unfold need. cbn [fits32 Z.leb Z.compare andb]. now rewrite A.
  - cbn [fits32 Z.leb Z.compare andb]. rewrite (ea_stack s sp) by (exact F || assumption). unfold withm, need.
    rewrite mload_slot by auto. now rewrite A.
Qed.
Lemma x86_jcc_step sort l s x y :
  flags s = Some (x, y) ->
  step im (jcc sort l) s = if eval_cmp sort x y then goto_label im s l else Next s.
Proof. intros H. destruct sort; cbn [jcc step]; unfold cond_jump; now rewrite H. Qed.

(* division and remainder: dividend through rax, rdx backed up in rcx, a divisor living in rdx
   redirected to rcx; rax and rdx are restored *)
Definition divisor_loc (s2 : xtemp) : xtemp :=
  match s2 with XR r => if N.eqb r RETURN2 then XR TEMP else s2 | XS _ => s2 end.

Lemma R4 : RETURN1 = 4%N. Proof. reflexivity. Qed.
Lemma R5 : RETURN2 = 5%N. Proof. reflexivity. Qed.
Lemma R1 : TEMP = 1%N. Proof. reflexivity. Qed.

Lemma div_core_ok s sp s2 a b :
  frame_ok s sp -> loc_ok s2 -> s2 <> XR 4%N ->
  rget s 4%N = Some a -> lget s sp (divisor_loc s2) = Some b ->
  b <> 0 -> ~ (a = min_int /\ b = -1) ->
  exec_straight im (div_core s2) s =
    Some (set_flags (rset (rset (rset s 5%N (Some (if a <? 0 then -1 else 0))) 4%N (Some (Z.quot a b)))
                          5%N (Some (Z.rem a b))) None).
Proof.
  intros F S2 N4 A B NZ NO.
  assert (Hz : (b =? 0) = false) by (apply Z.eqb_neq; exact NZ).
  assert (Ho : ((a =? min_int) && (b =? -1)) = false).
  { destruct (Z.eqb_spec a min_int), (Z.eqb_spec b (-1)); cbn; auto. exfalso; apply NO; auto. }
  assert (A' : rget (rset s 5%N (Some (if a <? 0 then -1 else 0))) 4%N = Some a)
    by (rewrite rget_rset_other by congruence; exact A).
  assert (D' : rget (rset s 5%N (Some (if a <? 0 then -1 else 0))) 5%N = Some (if a <? 0 then -1 else 0))
    by apply rget_rset_same.
  unfold div_core, divisor_loc in *. rewrite ?R5, ?R1 in *. destruct s2 as [r|p]; cbn [lget loc_ok] in *.
  - destruct (N.eqb_spec r 5%N) as [->|NE]; cbn [lget] in B; cbn [exec_straight step]; unfold need;
      rewrite A; cbv iota beta; rewrite A', D'; cbv iota beta;
      rewrite rget_rset_other by congruence; rewrite B; cbv iota beta;
      rewrite Z.eqb_refl, Hz, Ho; reflexivity.
  - cbn [exec_straight step]; unfold need.
    rewrite A. cbv iota beta. rewrite A', D'. cbv iota beta.
    assert (F1 : frame_ok (rset s 5%N (Some (if a <? 0 then -1 else 0))) sp) by frame.
    rewrite (ea_stack _ sp) by (exact F1 || assumption). unfold withm. rewrite mload_slot by auto.
    rewrite sget_rset, B. cbv iota beta. rewrite Z.eqb_refl, Hz, Ho. reflexivity.
Qed.

Definition div_pre (t s1 s2 : xtemp) : Prop :=
  loc_ok t /\ loc_ok s1 /\ loc_ok s2 /\
  t <> XR TEMP /\ t <> XR RETURN1 /\ t <> XR RETURN2 /\ t <> s1 /\ t <> s2 /\
  s1 <> XR TEMP /\ s1 <> XR RETURN1 /\ s2 <> XR TEMP /\ s2 <> XR RETURN1.

(* x_div and x_rem begin alike (rcx := rdx; t := rax; rax := s1) and end alike (rax := t; t := rdx; rdx := rcx);
   in between the division and, for x_div, rdx := rax *)
Definition div_entry (t s1 : xtemp) : list xcode :=
  [MOV TEMP RETURN2] ++ move_from_register t RETURN1 ++ move_to_register RETURN1 s1.
Definition div_exit (t : xtemp) : list xcode :=
  move_to_register RETURN1 t ++ move_from_register t RETURN2 ++ [MOV RETURN2 TEMP].
Lemma x_div_rem_eq (is_rem : bool) t s1 s2 :
  (if is_rem then x_rem t s1 s2 else x_div t s1 s2) =
  (div_entry t s1 ++ div_core s2 ++ (if is_rem then [] else [MOV RETURN2 RETURN1]) ++ div_exit t)%list.
Proof. destruct is_rem; unfold x_rem, x_div, div_entry, div_exit; now rewrite <- !app_assoc. Qed.

Lemma div_entry_ok s sp t s1 s2 a b :
  frame_ok s sp -> div_pre t s1 s2 -> lget s sp s1 = Some a -> lget s sp s2 = Some b ->
  exists s3, exec_straight im (div_entry t s1) s = Some s3 /\ frame_ok s3 sp /\
    rget s3 4%N = Some a /\ lget s3 sp (divisor_loc s2) = Some b /\
    rget s3 1%N = rget s 5%N /\ lget s3 sp t = rget s 4%N /\
    (forall l, loc_ok l -> l <> t -> l <> XR 1%N -> l <> XR 4%N -> lget s3 sp l = lget s sp l) /\
    heap s3 = heap s /\ out s3 = out s.
Proof.
  intros F PRE A B. unfold div_pre in PRE. rewrite ?R4, ?R5, ?R1 in *.
  destruct PRE as (T & S1 & S2 & NT1 & NT4 & NT5 & NTS1 & NTS2 & N11 & N14 & N21 & N24).
  assert (SP : sp_ok sp) by apply F.
  set (st1 := rset s 1%N (rget s 5%N)).
  assert (F1 : frame_ok st1 sp) by (subst st1; frame).
  set (st2 := lset st1 sp t (rget st1 4%N)).
  assert (F2 : frame_ok st2 sp) by (subst st2; apply frame_ok_lset; locs).
  set (st3 := rset st2 4%N (lget st2 sp s1)).
  assert (K : forall l, loc_ok l -> l <> t -> l <> XR 4%N -> lget st3 sp l = lget st1 sp l).
  { intros l L Nt N4. subst st3 st2. rewrite lget_rset_other by exact N4. apply lget_lset_other; locs. }
  assert (C3 : rget st3 1%N = rget s 5%N).
  { change (rget st3 1%N) with (lget st3 sp (XR 1%N)). rewrite K by locs. apply rget_rset_same. }
  assert (OTH : forall l, loc_ok l -> l <> t -> l <> XR 1%N -> l <> XR 4%N -> lget st3 sp l = lget s sp l).
  { intros l L Nt N1 N4. rewrite K by assumption. subst st1. apply lget_rset_other; exact N1. }
  exists st3. split; [|split; [subst st3; frame|]].
  - unfold div_entry. rewrite ?R4, ?R5, ?R1. cbn [app exec_straight].
    change (step im (MOV 1%N 5%N) s) with (Next st1). cbv iota beta.
    rewrite exec_straight_app, (move_from_register_ok im st1 sp t 4%N F1 T). fold st2. cbv iota beta.
    exact (move_to_register_ok im st2 sp 4%N s1 F2 S1).
  - split; [|split; [|split; [exact C3|split; [|split; [exact OTH|]]]]].
    + subst st3. rewrite rget_rset_same. subst st2. rewrite lget_lset_other by locs.
      subst st1. rewrite lget_rset_other by locs. exact A.
    + unfold divisor_loc. rewrite ?R5, ?R1. destruct s2 as [r|p]; [destruct (N.eqb_spec r 5%N) as [->|NE]|].
      * cbn [lget]. rewrite C3. exact B.
      * rewrite OTH by locs. exact B.
      * rewrite OTH by locs. exact B.
    + subst st3. rewrite lget_rset_other by locs. subst st2. rewrite lget_lset_same.
      subst st1. apply rget_rset_other. discriminate.
    + subst st3 st2 st1. cbn [heap out rset]. rewrite heap_lset, out_lset. auto.
Qed.

Lemma div_exit_ok s sp t :
  frame_ok s sp -> loc_ok t -> t <> XR 1%N -> t <> XR 4%N -> t <> XR 5%N ->
  exists s', exec_straight im (div_exit t) s = Some s' /\ frame_ok s' sp /\
    lget s' sp t = rget s 5%N /\ rget s' 5%N = rget s 1%N /\ rget s' 4%N = lget s sp t /\
    (forall l, loc_ok l -> l <> t -> l <> XR 4%N -> l <> XR 5%N -> lget s' sp l = lget s sp l) /\
    heap s' = heap s /\ out s' = out s.
Proof.
  intros F T N1 N4 N5. assert (SP : sp_ok sp) by apply F.
  set (st5 := rset s 4%N (lget s sp t)).
  assert (F5 : frame_ok st5 sp) by (subst st5; frame).
  set (st6 := lset st5 sp t (rget st5 5%N)).
  assert (F6 : frame_ok st6 sp) by (subst st6; apply frame_ok_lset; locs).
  exists (rset st6 5%N (rget st6 1%N)). split; [|split; [frame|]].
  - unfold div_exit. rewrite ?R4, ?R5, ?R1.
    rewrite exec_straight_app, (move_to_register_ok im s sp 4%N t F T). fold st5. cbv iota beta.
    rewrite exec_straight_app, (move_from_register_ok im st5 sp t 5%N F5 T). reflexivity.
  - split; [|split; [|split; [|split]]].
    + rewrite lget_rset_other by locs. subst st6. rewrite lget_lset_same. subst st5. apply rget_rset_other. discriminate.
    + rewrite rget_rset_same. change (rget st6 1%N) with (lget st6 sp (XR 1%N)). subst st6.
      rewrite lget_lset_other by locs. subst st5. apply rget_rset_other. discriminate.
    + rewrite rget_rset_other by discriminate. change (rget st6 4%N) with (lget st6 sp (XR 4%N)). subst st6.
      rewrite lget_lset_other by locs. subst st5. apply rget_rset_same.
    + intros l L Nt N4' N5'. rewrite lget_rset_other by exact N5'. subst st6. rewrite lget_lset_other by locs.
      subst st5. apply lget_rset_other. exact N4'.
    + subst st6 st5. cbn [heap out rset]. rewrite heap_lset, out_lset. auto.
Qed.

Theorem x86_div_rem_ok (is_rem : bool) s sp t s1 s2 a b :
  frame_ok s sp -> div_pre t s1 s2 ->
  lget s sp s1 = Some a -> lget s sp s2 = Some b ->
  b <> 0 -> ~ (a = min_int /\ b = -1) ->
  exists s', exec_straight im (if is_rem then x_rem t s1 s2 else x_div t s1 s2) s = Some s' /\
             lget s' sp t = Some (if is_rem then Z.rem a b else Z.quot a b) /\ preserved s s' sp t.
Proof.
  intros F PRE A B NZ NO.
  destruct (div_entry_ok s sp t s1 s2 a b F PRE A B) as (s3 & E3 & F3 & A3 & B3 & C3 & T3 & K3 & H3 & O3).
  unfold div_pre, preserved in *. rewrite ?R4, ?R5, ?R1 in *.
  destruct PRE as (T & S1 & S2 & NT1 & NT4 & NT5 & NTS1 & NTS2 & N11 & N14 & N21 & N24).
  pose proof (div_core_ok s3 sp s2 a b F3 S2 N24 A3 B3 NZ NO) as D4.
  set (st4 := set_flags (rset (rset (rset s3 5%N (Some (if a <? 0 then -1 else 0))) 4%N (Some (Z.quot a b)))
                              5%N (Some (Z.rem a b))) None) in D4.
  (* rdx := the result *)
  set (st4' := if is_rem then st4 else rset st4 5%N (rget st4 4%N)).
  assert (E4 : exec_straight im (if is_rem then [] else [MOV 5%N 4%N]) st4 = Some st4')
    by (subst st4'; destruct is_rem; reflexivity).
  assert (F4 : frame_ok st4' sp) by (subst st4' st4; destruct is_rem; frame).
  assert (V4 : rget st4' 5%N = Some (if is_rem then Z.rem a b else Z.quot a b)).
  { subst st4' st4. destruct is_rem; [|rewrite rget_rset_same]; rewrite rget_set_flags;
      [|rewrite rget_rset_other by discriminate]; apply rget_rset_same. }
  assert (K4 : forall l, l <> XR 4%N -> l <> XR 5%N -> lget st4' sp l = lget s3 sp l).
  { intros l N4 N5. subst st4' st4. destruct is_rem; [|rewrite lget_rset_other by exact N5];
      rewrite lget_set_flags, !lget_rset_other by assumption; reflexivity. }
  assert (HO4 : heap st4' = heap s3 /\ out st4' = out s3) by (subst st4' st4; destruct is_rem; split; reflexivity).
  destruct (div_exit_ok st4' sp t F4 T NT1 NT4 NT5) as (s' & E5 & F5 & T5 & C5 & A5 & K5 & H5 & O5).
  exists s'. split; [|split; [rewrite T5; exact V4|]].
  - rewrite x_div_rem_eq, ?R4, ?R5, exec_straight_app, E3. cbv iota beta.
    rewrite exec_straight_app, D4. cbv iota beta. rewrite exec_straight_app, E4. exact E5.
  - split; [|split; [|split; [|exact F5]]].
    + intros l L NL NLT.
      destruct (xtemp_eqb_spec l (XR 5%N)) as [->|N5]; [|destruct (xtemp_eqb_spec l (XR 4%N)) as [->|N4]].
      * cbn [lget]. rewrite C5. change (rget st4' 1%N) with (lget st4' sp (XR 1%N)).
        rewrite K4 by discriminate. exact C3.
      * cbn [lget]. rewrite A5, K4 by assumption. exact T3.
      * rewrite K5, K4 by assumption. apply K3; assumption.
    + rewrite H5, (proj1 HO4). exact H3.
    + rewrite O5, (proj2 HO4). exact O3.
Qed.

(* all five operators at once, against the AxCut meaning eval_op *)
Theorem x86_arith_ok o s sp t s1 s2 a b v :
  frame_ok s sp -> div_pre t s1 s2 ->
  lget s sp s1 = Some a -> lget s sp s2 = Some b -> eval_op o a b = OpVal v ->
  exists s', exec_straight im (x_arith o t s1 s2) s = Some s' /\
             lget s' sp t = Some v /\ preserved s s' sp t.
Proof.
  intros F PRE A B E.
  pose proof PRE as (T & S1 & S2 & NT1 & NT4 & NT5 & NTS1 & NTS2 & N11 & N14 & N21 & N24).
  destruct o; cbn [x_arith eval_op] in *.
  - destruct (Z.eqb_spec b 0) as [|NZ]; [discriminate|].
    destruct (Z.eqb_spec a min_int) as [Ea|Na], (Z.eqb_spec b (-1)) as [Eb|Nb]; cbn [andb] in E; try discriminate;
      injection E as <-; apply (x86_div_rem_ok false); auto; tauto.
  - injection E as <-. apply (x86_op_commutative_ok AMul); auto; discriminate.
  - destruct (Z.eqb_spec b 0) as [|NZ]; [discriminate|].
    destruct (Z.eqb_spec a min_int) as [Ea|Na], (Z.eqb_spec b (-1)) as [Eb|Nb]; cbn [andb] in E; try discriminate;
      injection E as <-; apply (x86_div_rem_ok true); auto; tauto.
  - injection E as <-. apply (x86_op_commutative_ok AAdd); auto; discriminate.
  - injection E as <-. apply x86_sub_ok; auto.
Qed.
End Arith.
