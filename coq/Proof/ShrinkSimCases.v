(* Proof/ShrinkSimCases.v (C04, fragment 2) - the cases of the simulation lemma that need no eta
   expansion: exit, print, ifc; literal / operation against mu~ and against a covariable (integer
   continuations); renaming cuts and the critical pair at i64; switch and create (by clause selection,
   [select_sim]); let and invoke; known cuts ([known_sim]). *)
From Coq Require Import List ZArith NArith String Bool Lia.
From SCC Require Import Base.Sexp Lang.SynUtil Lang.CoreSyn Lang.AxSyn Sem.AxSem Sem.FsCheck Model.Shrink
     Proof.ShrinkProof Proof.ShrinkSem Proof.ShrinkRn Proof.ShrinkRel Proof.ShrinkSimBase.
From SCC Require Sem.CoreSem.
Import ListNotations.
Open Scope list_scope.

(* the opening of every case: name the hypotheses of [FLs], take one unit of shrinking fuel *)
Ltac start :=
  unfold FLs; intros k lbl G rho th st t st' A e ae Hinv Hck Hub Hib Hnc Hsh Hpf Hlift He out r Hrun Hg;
  destruct k as [|k]; [discriminate Hsh|]; rewrite shrink_stmt_S in Hsh.
(* inversion of the shrinking equation that keeps the run and its goodness last *)
Ltac invsh Hsh := match goal with Hrun : _ = ?r, Hg : good ?r |- _ => revert Hrun Hg; inv Hsh; intros Hrun Hg end.
Ltac weaken He := eapply erel_weaken; [exact He | lia | intros ? ?; cbn [occurs occ_term]; tauto | apply incl_refl].
Ltac occ := cbn [occurs occ_term]; tauto.
Ltac occx := cbn [occurs]; right; apply occ_term_xcase; assumption.
(* inversion of an equation between Some's without substituting other variables *)
Ltac inv_keep H := injection H as <-.

Section Cases.
Variable p : fsprog.
Variable q : prog.
Notation P := (CoreSem.fs2c_prog p).
Notation data := (fspdata p).
Notation codata := (fspcodata p).
Notation defs := (fspdefs p).
Notation m0 := (fspmax p).
Notation D := (data ++ [cont_int]).
Hypothesis Hdisj : forall n, find_decl data n <> None -> find_decl codata n = None.
Definition IHn (n : nat) : Prop := forall n', n' < n -> FLn p q n'.

Lemma fl_exit : forall n, IHn n -> forall v, FLs p q n (FsExit v).
Proof.
  intros n IH v. start. cbn [rn_stmt shrink_step] in Hsh; unfold shrink_identifier in Hsh. invsh Hsh.
  cbn [CoreSem.fs2c_stmt] in Hrun. cbn [check_stmt] in Hck.
  core_step Hrun Hg n. apply arg_int_step in Hrun as (n1 & pv & -> & Hl & Hrun); [|exact Hg].
  destruct (erel_int p q _ _ _ _ _ _ _ _ _ He (inv_nd _ _ _ _ _ Hinv) Hck eq_refl Hl) as (z & Epv & Hla); injection Epv as ->.
  core_step Hrun Hg n1. exists 1. cbn [arn exec_named]. rewrite Hla. exact Hrun.
Qed.

Lemma fl_print : forall n, IHn n -> forall nl a nx, FLs p q n (FsPrint nl a nx).
Proof.
  intros n IH nl a nx. start. cbn [rn_stmt shrink_step] in Hsh; unfold shrink_identifier in Hsh.
  destruct (shrink_stmt k _ (rn_stmt rho nx) st) as [[t1 st1]|] eqn:E1; [|discriminate Hsh]. cbn [sbind] in Hsh. invsh Hsh.
  rewrite check_stmt_print_eq in Hck. apply seq_none in Hck as [Hca Hck].
  rewrite ib_stmt_print in Hib. apply andb_prop in Hib as [_ Hib]. cbn [ub_stmt] in Hub. cbn [pfresh] in Hpf.
  cbn [CoreSem.fs2c_stmt] in Hrun.
  core_step Hrun Hg n. apply arg_int_step in Hrun as (n1 & pv & -> & Hl & Hrun); [|exact Hg].
  destruct (erel_int p q _ _ _ _ _ _ _ _ _ He (inv_nd _ _ _ _ _ Hinv) Hca (or_introl eq_refl) Hl) as (z & Epv & Hla); injection Epv as ->.
  core_step Hrun Hg n1. cbn [cont] in Hrun.
  destruct (IH n1 ltac:(lia) nx k lbl G rho th st t1 st' A e ae Hinv Hck Hub Hib (nc_print _ _ _ _ Hnc) E1 Hpf Hlift ltac:(weaken He) _ _ Hrun Hg) as [m Hm].
  exists (S m). cbn [arn exec_named]. rewrite Hla. exact Hm.
Qed.

Lemma fl_ifc : forall n, IHn n -> forall so a b t1 t2, FLs p q n (FsIfC so a b t1 t2).
Proof.
  intros n IH so a b s1 s2. start. cbn [rn_stmt shrink_step] in Hsh; unfold shrink_identifier in Hsh.
  destruct (shrink_stmt k _ (rn_stmt rho s1) st) as [[u1 st1]|] eqn:E1; [|discriminate Hsh]. cbn [sbind] in Hsh.
  destruct (shrink_stmt k _ (rn_stmt rho s2) st1) as [[u2 st2]|] eqn:E2; [|discriminate Hsh]. cbn [sbind] in Hsh. invsh Hsh.
  rewrite check_stmt_ifc_eq in Hck. apply seq_none in Hck as [Hca Hck]. apply seq_none in Hck as [Hcb Hck].
  apply seq_none in Hck as [Hc1 Hc2].
  rewrite ib_stmt_ifc in Hib. apply andb_prop in Hib as [Hib Hib2]. apply andb_prop in Hib as [_ Hib1].
  cbn [ub_stmt] in Hub. apply andb_prop in Hub as [Hub1 Hub2].
  cbn [pfresh] in Hpf. apply andb_prop in Hpf as [Hpf1 Hpf2].
  destruct (shrink_stmt_mono _ _ _ _ _ _ E1) as [Hm1 (nd1 & Hl1)].
  assert (Hinv1 : inv p G rho th st1) by (eapply inv_st_mono; eauto).
  destruct (shrink_stmt_mono _ _ _ _ _ _ E2) as [Hm2 (nd2 & Hl2)].
  assert (Hlift1 : lifted_in q st1) by (eapply lifted_in_mono; eauto).
  cbn [CoreSem.fs2c_stmt] in Hrun.
  core_step Hrun Hg n. apply arg_int_step in Hrun as (n1 & pv & -> & Hl & Hrun); [|exact Hg].
  destruct (erel_int p q _ _ _ _ _ _ _ _ _ He (inv_nd _ _ _ _ _ Hinv) Hca (or_introl eq_refl) Hl) as (x & Epv & Hla); injection Epv as ->.
  core_step Hrun Hg n1. destruct b as [b|]; cbn [option_map] in Hrun.
  - apply arg_int_step in Hrun as (n2 & pv & -> & Hl2' & Hrun); [|exact Hg].
    destruct (erel_int p q _ _ _ _ _ _ _ _ _ He (inv_nd _ _ _ _ _ Hinv) Hcb (or_intror (or_introl eq_refl)) Hl2') as (y & Epv & Hlb); injection Epv as ->.
    core_step Hrun Hg n2. rewrite ax_ifsort_shrink in Hrun.
    destruct (eval_cmp (shrink_ifsort so) x y) eqn:Ecmp.
    + destruct (IH n2 ltac:(lia) s1 k lbl G rho th st u1 st1 A e ae Hinv Hc1 Hub1 Hib1 (proj1 (nc_ifc _ _ _ _ _ _ Hnc)) E1 Hpf1 Hlift1 ltac:(weaken He) _ _ Hrun Hg) as [m Hm].
      exists (S m). cbn [arn exec_named option_map]. rewrite Hla, Hlb, Ecmp. exact Hm.
    + destruct (IH n2 ltac:(lia) s2 k lbl G rho th st1 u2 st' A e ae Hinv1 Hc2 Hub2 Hib2 (proj2 (nc_ifc _ _ _ _ _ _ Hnc)) E2 Hpf2 Hlift ltac:(weaken He) _ _ Hrun Hg) as [m Hm].
      exists (S m). cbn [arn exec_named option_map]. rewrite Hla, Hlb, Ecmp. exact Hm.
  - rewrite ax_ifsort_shrink in Hrun.
    destruct (eval_cmp (shrink_ifsort so) x 0) eqn:Ecmp.
    + destruct (IH n1 ltac:(lia) s1 k lbl G rho th st u1 st1 A e ae Hinv Hc1 Hub1 Hib1 (proj1 (nc_ifc _ _ _ _ _ _ Hnc)) E1 Hpf1 Hlift1 ltac:(weaken He) _ _ Hrun Hg) as [m Hm].
      exists (S m). cbn [arn exec_named option_map]. rewrite Hla, Ecmp. exact Hm.
    + destruct (IH n1 ltac:(lia) s2 k lbl G rho th st1 u2 st' A e ae Hinv1 Hc2 Hub2 Hib2 (proj2 (nc_ifc _ _ _ _ _ _ Hnc)) E2 Hpf2 Hlift ltac:(weaken He) _ _ Hrun Hg) as [m Hm].
      exists (S m). cbn [arn exec_named option_map]. rewrite Hla, Ecmp. exact Hm.
Qed.


Lemma fl_lit_mu : forall n, IHn n -> forall z ty c x s' t', FLs p q n (FsCut (FsLit z) ty (FsMu c x s' t')).
Proof.
  intros n IH z ty c x s' t'. start. cbn [rn_stmt rn_term shrink_step shrink_cut] in Hsh; unfold shrink_identifier in Hsh.
  destruct (shrink_stmt k _ (rn_stmt rho s') st) as [[t1 st1]|] eqn:E1; [|discriminate Hsh]. cbn [sbind] in Hsh. invsh Hsh.
  apply cut_typing in Hck as (Hty & Hcp & Hck).
  apply lit_typing in Hcp as [_ ->].
  apply mu_typing in Hck as Hck. cbn [opp] in Hck.
  rewrite ib_stmt_cut, ib_term_mu in Hib. apply andb_prop in Hib as [_ Hib]. apply andb_prop in Hib as [Hix Hib].
  apply id_le_le in Hix.
  cbn [ub_stmt ub_term andb] in Hub. apply andb_prop in Hub as [Hux Hub]. apply negb_mem_notin in Hux.
  cbn [pfresh] in Hpf. apply andb_prop in Hpf as [Hpx Hpf]. apply negb_memN_notin in Hpx.
  cbn [CoreSem.fs2c_stmt CoreSem.fs2c_term] in Hrun. core_step Hrun Hg n.
  cbn [CoreSem.khead CoreSem.cut_with_k CoreSem.interact_val cont] in Hrun.
  assert (He' : erel p q n (fun y => occurs y s') (fun y => th (rho y)) (idn x :: A) (mkcb x CPrd CI64 :: G)
                  ((x, BP (PInt z)) :: e) ((x, VInt z) :: ae)).
  { eapply erel_bind; [exact He | lia | exact Hinv | exact Hux | exact Hix | exact Hpx | intros y Hy; occ | constructor]. }
  destruct (IH n ltac:(lia) s' k lbl _ rho th st t1 st' _ _ _ (inv_push p _ _ _ _ _ CPrd CI64 Hinv Hux Hix) Hck Hub Hib (nc_cut_mu_r _ _ _ _ _ _ _ Hnc) E1 Hpf Hlift He' _ _ Hrun Hg) as [m Hm].
  exists (S m). cbn [arn exec_named]. exact Hm.
Qed.

Lemma fl_op_mu : forall n, IHn n -> forall a o b ty c x s' t', FLs p q n (FsCut (FsOp a o b) ty (FsMu c x s' t')).
Proof.
  intros n IH a o b ty c x s' t'. start. cbn [rn_stmt rn_term shrink_step shrink_cut] in Hsh; unfold shrink_identifier in Hsh.
  destruct (shrink_stmt k _ (rn_stmt rho s') st) as [[t1 st1]|] eqn:E1; [|discriminate Hsh]. cbn [sbind] in Hsh. invsh Hsh.
  apply cut_typing in Hck as (Hty & Hcp & Hck).
  apply op_typing in Hcp as (_ & -> & Hca & Hcb).
  apply mu_typing in Hck as Hck. cbn [opp] in Hck.
  rewrite ib_stmt_cut, ib_term_mu in Hib. apply andb_prop in Hib as [_ Hib]. apply andb_prop in Hib as [Hix Hib].
  apply id_le_le in Hix.
  cbn [ub_stmt ub_term andb] in Hub. apply andb_prop in Hub as [Hux Hub]. apply negb_mem_notin in Hux.
  cbn [pfresh] in Hpf. apply andb_prop in Hpf as [Hpx Hpf]. apply negb_memN_notin in Hpx.
  cbn [CoreSem.fs2c_stmt CoreSem.fs2c_term] in Hrun. core_step Hrun Hg n.
  apply arg_int_step in Hrun as (n1 & pv & -> & Hl & Hrun); [|exact Hg].
  destruct (erel_int p q _ _ _ _ _ _ _ _ _ He (inv_nd _ _ _ _ _ Hinv) Hca ltac:(cbn [occurs occ_term]; tauto) Hl) as (za & Epv & Hla); injection Epv as ->.
  core_step Hrun Hg n1.
  apply arg_int_step in Hrun as (n2 & pv & -> & Hl2 & Hrun); [|exact Hg].
  destruct (erel_int p q _ _ _ _ _ _ _ _ _ He (inv_nd _ _ _ _ _ Hinv) Hcb ltac:(cbn [occurs occ_term]; tauto) Hl2) as (zb & Epv & Hlb); injection Epv as ->.
  core_step Hrun Hg n2. rewrite ax_binop_shrink in Hrun.
  destruct (eval_op (shrink_binop o) za zb) as [z|why] eqn:Hop.
  - core_step Hrun Hg n2.
    cbn [CoreSem.khead CoreSem.cut_with_k CoreSem.interact_val cont] in Hrun.
    assert (He' : erel p q n2 (fun y => occurs y s') (fun y => th (rho y)) (idn x :: A) (mkcb x CPrd CI64 :: G)
                    ((x, BP (PInt z)) :: e) ((x, VInt z) :: ae)).
    { eapply erel_bind; [exact He | lia | exact Hinv | exact Hux | exact Hix | exact Hpx | intros y Hy; occ | constructor]. }
    destruct (IH n2 ltac:(lia) s' k lbl _ rho th st t1 st' _ _ _ (inv_push p _ _ _ _ _ CPrd CI64 Hinv Hux Hix) Hck Hub Hib (nc_cut_mu_r _ _ _ _ _ _ _ Hnc) E1 Hpf Hlift He' _ _ Hrun Hg) as [m Hm].
    exists (S m). cbn [arn exec_named]. rewrite Hla, Hlb, Hop. exact Hm.
  - cbn [cont] in Hrun. exists 1. cbn [arn exec_named]. rewrite Hla, Hlb, Hop. exact Hrun.
Qed.

(* the covariable of an integer continuation: a closure that understands Ret *)
Lemma erel_cont : forall n (need : cident -> Prop) pi A G e ae b cv,
  erel p q n need pi A G e ae -> NoDup (cids G) -> fbound G b CCns CI64 = None -> need b ->
  CoreSem.clookup e b = Some cv ->
  In (idn (pi b)) A /\
  exists kv tn cls ce, cv = BK kv /\ lookup ae (idn (pi b)) = Some (VClo tn cls ce) /\ cloR p q n CCns CI64 cv (VClo tn cls ce).
Proof.
  intros n need pi A G e ae b cv He Hnd Hb Hn Hl.
  destruct (erel_var p q _ _ _ _ _ _ _ _ _ _ _ He Hnd Hb Hn Hl) as (Hin & av & Hla & Hv). split; [exact Hin|].
  destruct (vrel_kind_bk _ _ _ _ _ _ Hv) as [kv ->].
  destruct (vrel_clo_inv _ _ _ _ _ _ _ Hv I) as (tn & cls & ce & -> & Hc). eauto 10.
Qed.

(* the id after max_id is not renamed by the eta expansions *)
Lemma th_fresh_var : forall G rho th st nm, inv p G rho th st -> th (nm, N.succ (s_max st)) = (nm, N.succ (s_max st)).
Proof.
  intros G rho th st nm Hinv. apply (inv_th _ _ _ _ _ Hinv). intros Hin'. apply (inv_le _ _ _ _ _ Hinv) in Hin'.
  pose proof (inv_st _ _ _ _ _ Hinv). cbn [cid_id snd] in Hin'. lia.
Qed.

(* <n | a> : literal n x'; invoke a Ret(x') *)
Lemma fl_lit_var : forall n, IHn n -> forall z ty c b t', FLs p q n (FsCut (FsLit z) ty (FsXVar c b t')).
Proof.
  intros n IH z ty c b t'. start. cbn [rn_stmt rn_term shrink_step shrink_cut] in Hsh; unfold shrink_identifier, fresh_var, fresh_identifier in Hsh.
  invsh Hsh.
  apply cut_typing in Hck as (Hty & Hcp & Hck).
  apply lit_typing in Hcp as [_ ->].
  apply var_typing in Hck as Hck.
  cbn [pfresh] in Hpf. apply andb_prop in Hpf as [Hpx _]. apply negb_memN_notin in Hpx.
  cbn [CoreSem.fs2c_stmt CoreSem.fs2c_term] in Hrun. core_step Hrun Hg n. cbn [CoreSem.khead] in Hrun.
  destruct (CoreSem.clookup e b) as [cv|] eqn:Hl; [|cbn [cont] in Hrun; exfalso; eapply cont_stuck; eauto].
  destruct (erel_cont _ _ _ _ _ _ _ _ _ He (inv_nd _ _ _ _ _ Hinv) Hck ltac:(cbn [occurs occ_term]; tauto) Hl)
    as (Hin & kv & tn & cls & ce & -> & Hla & Hc).
  cbn [CoreSem.cut_with_k] in Hrun.
  destruct (invoke_clo p q n CCns CI64 (BK kv) tn cls ce ret_name [VInt z] (CoreSem.interact_val (PInt z) kv) out r Hc) as (cl & e1 & m & Hf & Hb & Hm); [| exact Hrun | exact Hg |].
  { exists z. auto. }
  set (x' := ("x"%string, N.succ (s_max st))) in *.
  assert (Hx' : th x' = x') by apply (th_fresh_var _ _ _ _ _ Hinv).
  exists (S (S m)). cbn [arn exec_named invoke_ret]. unfold arn_ctx, arn_binding, vars, shrink_identifier. cbn [map bvar bchi bty]. rewrite Hx'.
  unfold lookup_id. cbn [lookup].
  destruct (N.eqb (idn x') (idn (th (rho b)))) eqn:E; [apply N.eqb_eq in E; exfalso; apply Hpx; rewrite E; exact Hin|].
  rewrite Hla, Hf. cbn [lookups]. unfold lookup_id. cbn [lookup]. unfold vars in Hb. rewrite N.eqb_refl, Hb. exact Hm.
Qed.

(* <a op b | k> : op a o b x'; invoke k Ret(x') *)
Lemma fl_op_var : forall n, IHn n -> forall a o b ty c v t', FLs p q n (FsCut (FsOp a o b) ty (FsXVar c v t')).
Proof.
  intros n IH a o b ty c v t'. start. cbn [rn_stmt rn_term shrink_step shrink_cut] in Hsh; unfold shrink_identifier, fresh_var, fresh_identifier in Hsh.
  invsh Hsh.
  apply cut_typing in Hck as (Hty & Hcp & Hck).
  apply op_typing in Hcp as (_ & -> & Hca & Hcb).
  apply var_typing in Hck as Hck.
  cbn [pfresh] in Hpf. apply andb_prop in Hpf as [Hpx _]. apply negb_memN_notin in Hpx.
  cbn [CoreSem.fs2c_stmt CoreSem.fs2c_term] in Hrun. core_step Hrun Hg n.
  apply arg_int_step in Hrun as (n1 & pv & -> & Hl & Hrun); [|exact Hg].
  destruct (erel_int p q _ _ _ _ _ _ _ _ _ He (inv_nd _ _ _ _ _ Hinv) Hca ltac:(cbn [occurs occ_term]; tauto) Hl) as (za & Epv & Hla); injection Epv as ->.
  core_step Hrun Hg n1.
  apply arg_int_step in Hrun as (n2 & pv & -> & Hl2 & Hrun); [|exact Hg].
  destruct (erel_int p q _ _ _ _ _ _ _ _ _ He (inv_nd _ _ _ _ _ Hinv) Hcb ltac:(cbn [occurs occ_term]; tauto) Hl2) as (zb & Epv & Hlb); injection Epv as ->.
  core_step Hrun Hg n2. rewrite ax_binop_shrink in Hrun.
  set (x' := ("x"%string, N.succ (s_max st))) in *.
  assert (Hx' : th x' = x') by apply (th_fresh_var _ _ _ _ _ Hinv).
  destruct (eval_op (shrink_binop o) za zb) as [z|why] eqn:Hop.
  - core_step Hrun Hg n2. cbn [CoreSem.khead] in Hrun.
    destruct (CoreSem.clookup e v) as [cv|] eqn:Hlv; [|cbn [cont] in Hrun; exfalso; eapply cont_stuck; eauto].
    destruct (erel_cont _ _ _ _ _ _ _ _ _ He (inv_nd _ _ _ _ _ Hinv) Hck ltac:(cbn [occurs occ_term]; tauto) Hlv)
      as (Hin & kv & tn & cls & ce & -> & Hlav & Hc).
    eapply cloR_le with (k := S n2) in Hc; [|lia].
    destruct (invoke_clo p q n2 CCns CI64 (BK kv) tn cls ce ret_name [VInt z] (CoreSem.interact_val (PInt z) kv) out r Hc) as (cl & e1 & m & Hf & Hb & Hm); [| exact Hrun | exact Hg |].
    { exists z. auto. }
    exists (S (S m)). cbn [arn exec_named invoke_ret]. unfold arn_ctx, arn_binding, vars, shrink_identifier. cbn [map bvar bchi bty]. rewrite Hx', Hla, Hlb, Hop.
    unfold lookup_id. cbn [lookup].
    destruct (N.eqb (idn x') (idn (th (rho v)))) eqn:E; [apply N.eqb_eq in E; exfalso; apply Hpx; rewrite E; exact Hin|].
    rewrite Hlav, Hf. cbn [lookups]. unfold lookup_id. cbn [lookup]. unfold vars in Hb. rewrite N.eqb_refl, Hb. exact Hm.
  - cbn [cont] in Hrun. exists 1. cbn [arn exec_named]. rewrite Hla, Hlb, Hop. exact Hrun.
Qed.

(* <mu a.s | b>  =  s[a := b] *)
Lemma fl_ren_mu : forall n, IHn n -> forall c1 a s' t1 ty c2 b t2,
  FLs p q n (FsCut (FsMu c1 a s' t1) ty (FsXVar c2 b t2)).
Proof.
  intros n IH c1 a s' t1 ty c2 b t2. start. cbn [rn_stmt rn_term shrink_step shrink_cut] in Hsh. unfold shrink_renaming in Hsh.
  rewrite subst_is_rn, rn_comp in Hsh.
  apply cut_typing in Hck as (Hty & Hcp & Hck).
  apply mu_typing in Hcp as Hcs. cbn [opp] in Hcs.
  apply var_typing in Hck as Hcb.
  rewrite ib_stmt_cut, ib_term_mu in Hib. apply andb_prop in Hib as [Hib _]. apply andb_prop in Hib as [Hia Hib].
  apply id_le_le in Hia.
  cbn [ub_stmt ub_term] in Hub. rewrite andb_true_r in Hub. apply andb_prop in Hub as [Hua Hub]. apply negb_mem_notin in Hua.
  cbn [CoreSem.fs2c_stmt CoreSem.fs2c_term] in Hrun. core_step Hrun Hg n. cbn [CoreSem.khead] in Hrun.
  destruct (CoreSem.clookup e b) as [cv|] eqn:Hl; [|exfalso; eapply cont_stuck; eauto].
  destruct (erel_clookup p q _ _ _ _ _ _ _ _ _ He (inv_nd _ _ _ _ _ Hinv) Hl) as (b0 & Hf0 & Hb0 & _).
  apply flookup_in in Hf0 as [Hin0 _].
  destruct (erel_var p q _ _ _ _ _ _ _ _ _ _ _ He (inv_nd _ _ _ _ _ Hinv) Hcb ltac:(occ) Hl) as (HinA & av & Hla & Hv).
  destruct (vrel_kind_bk _ _ _ _ _ _ Hv) as [kv ->].
  assert (Hrun' : CoreSem.crun n P (CoreSem.Run (CoreSem.fs2c_stmt s') ((a, BK kv) :: e)) out = r).
  { cbn [CoreSem.cut_with_k] in Hrun. rewrite is_codata_same in Hrun. destruct (is_codata codata ty) eqn:Eco.
    - destruct ty as [|T]; [discriminate Eco|].
      destruct (vrel_cns_codata_inv _ _ _ _ _ _ Hv Eco) as (d & K & sg & args & fs & tn & Ekv & _). injection Ekv as ->. exact Hrun.
    - exact Hrun. }
  clear Hrun.
  assert (Hids : forall i, In i (cids [mkcb a CCns ty]) -> ~ In i (cids G) /\ (i <= m0)%N).
  { intros i [<-|[]]. auto. }
  assert (Hinv' : inv p ([mkcb a CCns ty] ++ G) (fun x => subst_ident (combine (cids [mkcb a CCns ty]) [rho b]) (rho x)) th st).
  { apply inv_ext; auto.
    - repeat constructor. intros [].
    - intros z [<-|[]]. rewrite <- Hb0. apply (inv_rng _ _ _ _ _ Hinv). exact Hin0. }
  assert (Hra : subst_ident [(cid_id a, rho b)] (rho a) = rho b).
  { rewrite (inv_rho _ _ _ _ _ Hinv a Hua Hia). cbn [subst_ident]. now rewrite N.eqb_refl. }
  assert (He' : erel p q n (fun y => occurs y s') (fun y => th (subst_ident [(cid_id a, rho b)] (rho y))) A
                  ([mkcb a CCns ty] ++ G) ((a, BK kv) :: e) ae).
  { eapply erel_alias_list with (pi := fun y => th (rho y)) (vs := [BK kv]) (avs := [av]).
    - eapply erel_weaken; [exact He | lia | intros x Hx; exact Hx | apply incl_refl].
    - intros b1 Hb1 Hn. split; [occ|]. cbn beta.
      pose proof (inv_old p _ _ _ _ [cid_id a] [rho b] _ Hinv Hb1 Hids) as Ho. cbn [combine] in Ho. rewrite Ho. reflexivity.
    - constructor; [|constructor]. eapply vrel_le; [|exact Hv]. lia.
    - cbn [map lookups cbvar]. rewrite Hra. unfold lookup_id. rewrite Hla. reflexivity.
    - intros b1 [<-|[]]. cbn [cbvar]. rewrite Hra. exact HinA.
    - reflexivity. }
  destruct (IH n ltac:(lia) s' k lbl _ _ th st t st' A _ ae Hinv' Hcs Hub Hib (nc_cut_mu_l _ _ _ _ _ _ _ Hnc) Hsh Hpf Hlift He' _ _ Hrun' Hg) as [m Hm].
  exists m. exact Hm.
Qed.

(* <x | mu~ y.s>  =  s[y := x] *)
Lemma fl_ren_mut : forall n, IHn n -> forall c1 x t1 ty c2 y s' t2,
  FLs p q n (FsCut (FsXVar c1 x t1) ty (FsMu c2 y s' t2)).
Proof.
  intros n IH c1 x t1 ty c2 y s' t2. start. cbn [rn_stmt rn_term shrink_step shrink_cut] in Hsh. unfold shrink_renaming in Hsh.
  rewrite subst_is_rn, rn_comp in Hsh.
  apply cut_typing in Hck as (Hty & Hcp & Hck).
  apply mu_typing in Hck as Hcs. cbn [opp] in Hcs.
  apply var_typing in Hcp as Hcx.
  rewrite ib_stmt_cut, ib_term_mu in Hib. apply andb_prop in Hib as [_ Hib]. apply andb_prop in Hib as [Hiy Hib].
  apply id_le_le in Hiy.
  cbn [ub_stmt ub_term andb] in Hub. apply andb_prop in Hub as [Huy Hub]. apply negb_mem_notin in Huy.
  cbn [CoreSem.fs2c_stmt CoreSem.fs2c_term] in Hrun. core_step Hrun Hg n. cbn [CoreSem.khead CoreSem.cut_with_k] in Hrun.
  destruct (CoreSem.clookup e x) as [cv|] eqn:Hl; [|exfalso; eapply cont_stuck; eauto].
  destruct (erel_clookup p q _ _ _ _ _ _ _ _ _ He (inv_nd _ _ _ _ _ Hinv) Hl) as (b0 & Hf0 & Hb0 & _).
  apply flookup_in in Hf0 as [Hin0 _].
  destruct (erel_var p q _ _ _ _ _ _ _ _ _ _ _ He (inv_nd _ _ _ _ _ Hinv) Hcx ltac:(occ) Hl) as (HinA & av & Hla & Hv).
  destruct (vrel_kind_bp _ _ _ _ _ _ Hv) as [pv ->]. cbn [CoreSem.interact_val cont] in Hrun.
  assert (Hids : forall i, In i (cids [mkcb y CPrd ty]) -> ~ In i (cids G) /\ (i <= m0)%N).
  { intros i [<-|[]]. auto. }
  assert (Hinv' : inv p ([mkcb y CPrd ty] ++ G) (fun z => subst_ident (combine (cids [mkcb y CPrd ty]) [rho x]) (rho z)) th st).
  { apply inv_ext; auto.
    - repeat constructor. intros [].
    - intros z [<-|[]]. rewrite <- Hb0. apply (inv_rng _ _ _ _ _ Hinv). exact Hin0. }
  assert (Hra : subst_ident [(cid_id y, rho x)] (rho y) = rho x).
  { rewrite (inv_rho _ _ _ _ _ Hinv y Huy Hiy). cbn [subst_ident]. now rewrite N.eqb_refl. }
  assert (He' : erel p q n (fun z => occurs z s') (fun z => th (subst_ident [(cid_id y, rho x)] (rho z))) A
                  ([mkcb y CPrd ty] ++ G) ((y, BP pv) :: e) ae).
  { eapply erel_alias_list with (pi := fun z => th (rho z)) (vs := [BP pv]) (avs := [av]).
    - eapply erel_weaken; [exact He | lia | intros z Hz; exact Hz | apply incl_refl].
    - intros b1 Hb1 Hn. split; [occ|]. cbn beta.
      pose proof (inv_old p _ _ _ _ [cid_id y] [rho x] _ Hinv Hb1 Hids) as Ho. cbn [combine] in Ho. rewrite Ho. reflexivity.
    - constructor; [|constructor]. eapply vrel_le; [|exact Hv]. lia.
    - cbn [map lookups cbvar]. rewrite Hra. unfold lookup_id. rewrite Hla. reflexivity.
    - intros b1 [<-|[]]. cbn [cbvar]. rewrite Hra. exact HinA.
    - reflexivity. }
  destruct (IH n ltac:(lia) s' k lbl _ _ th st t st' A _ ae Hinv' Hcs Hub Hib (nc_cut_mu_r _ _ _ _ _ _ _ Hnc) Hsh Hpf Hlift He' _ _ Hrun Hg) as [m Hm].
  exists m. exact Hm.
Qed.

(* <mu a.sp | mu~ x.sc> at i64: create a = { Ret(x) => sc }; sp   (producer first) *)
Lemma fl_crit_i64 : forall n, IHn n -> forall c1 a sp t1 c2 x sc t2,
  FLs p q n (FsCut (FsMu c1 a sp t1) CI64 (FsMu c2 x sc t2)).
Proof.
  intros n IH c1 a sp t1 c2 x sc t2. start.
  cbn [rn_stmt rn_term shrink_step shrink_cut shrink_critical_pairs] in Hsh. unfold shrink_identifier in Hsh.
  destruct (shrink_stmt k _ (rn_stmt rho sc) st) as [[body st1]|] eqn:E1; [|discriminate Hsh]. cbn [sbind] in Hsh.
  destruct (shrink_stmt k _ (rn_stmt rho sp) st1) as [[next st2]|] eqn:E2; [|discriminate Hsh]. cbn [sbind] in Hsh. invsh Hsh.
  destruct (cut_terms p _ _ _ _ Hck Hub Hib Hnc) as (Hty & (Hcp & Hub1 & Hib1 & Hn1) & (Hcc & Hub2 & Hib2 & Hn2)).
  destruct (mu_parts p _ _ _ _ _ _ _ Hcp Hub1 Hib1 Hn1) as (Hcsp & Hua & Hia & Hubp & Hibp & Hncp').
  destruct (mu_parts p _ _ _ _ _ _ _ Hcc Hub2 Hib2 Hn2) as (Hcsc & Hux & Hix & Hubc & Hibc & Hncc').
  rewrite pfresh_create in Hpf. apply andb_prop in Hpf as [Hpf Hpn]. apply andb_prop in Hpf as [Hpc Hpa].
  apply negb_memN_notin in Hpa. unfold pfresh_cls in Hpc. cbn [forallb fst snd ids map bvar fresh_list rev_append] in Hpc.
  rewrite !andb_true_r in Hpc. apply andb_prop in Hpc as [Hpx Hpb]. apply negb_memN_notin in Hpx.
  destruct (shrink_stmt_mono _ _ _ _ _ _ E1) as [Hm1 (nd1 & Hl1)].
  assert (Hinv1 : inv p G rho th st1) by (eapply inv_st_mono; eauto).
  destruct (shrink_stmt_mono _ _ _ _ _ _ E2) as [Hm2 (nd2 & Hl2)].
  assert (Hlift1 : lifted_in q st1) by (eapply lifted_in_mono; eauto).
  cbn [CoreSem.fs2c_stmt CoreSem.fs2c_term] in Hrun. core_step Hrun Hg n.
  cbn [CoreSem.khead CoreSem.cut_with_k CoreSem.is_codata CoreSem.interact_mu cont] in Hrun.
  set (kv := CoreSem.KMuT x (CoreSem.fs2c_stmt sc) e) in *.
  set (cls := [(ret_name, [mkb x Ext I64], arn th body)]).
  assert (Hclo : vrel p q n CCns CI64 (BK kv) (VClo cont_name cls ae)).
  { apply VR_clo. apply cloR_intro; [exact I|]. intros j Hj tag fs sr (z & -> & -> & ->).
    exists (ret_name, [mkb x Ext I64], arn th body), [(x, VInt z)]. split; [reflexivity|]. split; [reflexivity|].
    intros out' r' Hr' Hg'. unfold kv in Hr'. cbn [CoreSem.interact_val cont] in Hr'.
    assert (He' : erel p q j (fun y => occurs y sc) (fun y => th (rho y)) (idn x :: A) (mkcb x CPrd CI64 :: G)
                    ((x, BP (PInt z)) :: e) ((x, VInt z) :: ae)).
    { eapply erel_bind; [exact He | lia | exact Hinv | exact Hux | exact Hix | exact Hpx | intros y Hy; occ | constructor]. }
    destruct (IH j ltac:(lia) sc k lbl _ rho th st body st1 _ _ _ (inv_push p _ _ _ _ _ CPrd CI64 Hinv Hux Hix) Hcsc Hubc Hibc (nc_cut_mu_r _ _ _ _ _ _ _ Hnc) E1 Hpb Hlift1 He' _ _ Hr' Hg') as [m Hm].
    exists m. exact Hm. }
  assert (He' : erel p q n (fun y => occurs y sp) (fun y => th (rho y)) (idn a :: A) (mkcb a CCns CI64 :: G)
                  ((a, BK kv) :: e) ((a, VClo cont_name cls ae) :: ae)).
  { eapply erel_bind; [exact He | lia | exact Hinv | exact Hua | exact Hia | exact Hpa | intros y Hy; occ | exact Hclo]. }
  destruct (IH n ltac:(lia) sp k lbl _ rho th st1 next st' _ _ _ (inv_push p _ _ _ _ _ CCns CI64 Hinv1 Hua Hia) Hcsp Hubp Hibp (nc_cut_mu_l _ _ _ _ _ _ _ Hnc) E2 Hpn Hlift He' _ _ Hrun Hg) as [m Hm].
  exists (S m). rewrite arn_create. cbn [exec_named cont_ty ty_name shrink_identifier]. exact Hm.
Qed.

Lemma bind_total : forall (xs : list ident) (vs : list value), List.length xs = List.length vs -> exists e, bind xs vs = Some e.
Proof.
  induction xs as [|x r IH]; intros [|v vr] H; try discriminate; [eexists; reflexivity|].
  simpl in H. destruct (IH vr) as [e He]; [lia|]. simpl. rewrite He. eexists; reflexivity.
Qed.
Lemma ids_vars : forall c, ids c = map idn (vars c).
Proof. intros. unfold ids, vars. now rewrite map_map. Qed.

Lemma inv_push_list : forall ctx G rho th st, inv p G rho th st -> NoDup (cids ctx) ->
  (forall i, In i (cids ctx) -> ~ In i (cids G) /\ (i <= m0)%N) -> inv p (ctx ++ G) rho th st.
Proof.
  induction ctx as [|[x c t] ctx IH]; intros G rho th st Hinv Hnd Hids; [exact Hinv|].
  cbn [cids map cbvar] in Hnd. inversion Hnd as [|? ? Hni Hnd']; subst. cbn [app].
  apply inv_push.
  - apply IH; auto. intros i Hi. apply Hids. now right.
  - rewrite cids_app. intros Hin. apply in_app_or in Hin as [Hin|Hin]; [contradiction|].
    apply (proj1 (Hids (cid_id x) (or_introl eq_refl))). exact Hin.
  - apply Hids. now left.
Qed.

Lemma select_sim : forall j, FLn p q j ->
  forall k lbl side T d cls G rho th st cls' st' A e ae K sg vs avs,
  inv p G rho th st ->
  clauses_match side T cls (ctxtors d) = None -> check_bodies data codata defs G cls = None ->
  ub_clauses (cids G) cls = true -> ib_clauses m0 cls = true -> nc_clauses (cvars G) cls = true ->
  shrink_clauses (shrink_stmt k (mksenv D codata lbl)) (mksenv D codata lbl) (rn_clauses rho cls) st = SOk (cls', st') ->
  pfresh_cls A cls' = true -> lifted_in q st' ->
  erel p q j (fun x => occ_clauses x cls) (fun x => th (rho x)) A G e ae ->
  find_cxtor d K = Some sg -> vrels p q j (cxargs sg) vs avs ->
  exists cl e1, find_clause (arn_cls th cls') K = Some cl /\ bind (vars (cl_ctx cl)) avs = Some e1 /\
     beh p q j (CoreSem.select (fs2c_clauses cls) e K vs) (e1 ++ ae) (cl_body cl).
Proof.
  intros j FL k lbl side T d cls G rho th st cls' st' A e ae K sg vs avs Hinv Hcm Hcb Hub Hib Hnc Hsh Hpf Hlift He Hx Hv.
  destruct (clauses_match_find _ _ _ _ _ _ Hcm Hx) as (cl0 & Hf & Hn & Hps).
  assert (Hin : In cl0 cls) by (apply find_some in Hf; tauto).
  destruct (ib_clauses_in p _ _ Hib Hin) as [Hibc Hibb].
  destruct (ub_clauses_in _ _ _ Hub Hin) as [Hubc Hubb]. apply fresh_ids_spec in Hubc as [Hnd Hnotin].
  destruct (shrink_clauses_find p k (mksenv D codata lbl) rho cls st cls' st' K cl0 eq_refl Hsh) as (t1 & st1 & st1' & F1 & F2 & F3 & F4 & F5 & nd & F6); auto.
  { intros c Hc. apply (ib_clauses_in p _ _ Hib Hc). }
  { apply (inv_st _ _ _ _ _ Hinv). }
  destruct (pfresh_cls_in _ _ _ _ _ Hpf F2) as [Hfl Hpb]. apply fresh_list_spec in Hfl as [Hnd' Hdis'].
  destruct (vrels_length _ _ _ _ _ _ Hv) as [Hlv Hla]. pose proof (fparams_ok_length _ _ Hps) as Hlp.
  destruct (bind_total (vars (shrink_context codata (clause_ctx cl0))) avs) as [e1 Hb].
  { rewrite vars_shrink_context. unfold cvars. rewrite map_length. lia. }
  exists (clause_xtor cl0, shrink_context codata (clause_ctx cl0), arn th t1), e1.
  split; [rewrite find_clause_arn, F1; reflexivity|]. split; [exact Hb|].
  intros out r Hr Hg. unfold CoreSem.select in Hr. rewrite cfind_clause_fs2c, Hf in Hr. cbn [option_map] in Hr.
  destruct cl0 as [c0 x0 ctx0 b0]. cbn [CoreSem.fs2c_clause CoreSem.cl_ctx CoreSem.cl_body clause_ctx clause_body clause_xtor] in *.
  destruct (CoreSem.cbind (cvars ctx0) vs e) as [e'|] eqn:Ecb; [|exfalso; eapply cont_stuck; eauto].
  cbn [cont] in Hr. cbn [cl_body snd].
  assert (Hids : forall i, In i (cids ctx0) -> ~ In i (cids G) /\ (i <= m0)%N).
  { intros i Hi. split; [now apply Hnotin | eapply ctx_le_ids; eauto]. }
  assert (Hself : forall b, In b ctx0 -> th (rho (cbvar b)) = cbvar b).
  { intros b Hb0. assert (Hbi : In (cid_id (cbvar b)) (cids ctx0)) by (unfold cids; apply in_map_iff; eauto).
    destruct (Hids _ Hbi). eapply inv_self; eauto. }
  assert (He' : erel p q j (fun y => occurs y b0) (fun y => th (rho y))
                  (rev_append (map idn (vars (shrink_context codata ctx0))) A) (ctx0 ++ G) e' (e1 ++ ae)).
  { eapply erel_push_list with (pi := fun y => th (rho y)) (vs := vs) (avs := avs).
    - exact He.
    - intros b Hb0 Hn0. split; [|reflexivity]. exists (FsClause c0 x0 ctx0 b0). split; [exact Hin | exact Hn0].
    - rewrite <- ids_vars. exact Hnd'.
    - rewrite <- ids_vars. exact Hdis'.
    - rewrite vars_shrink_context. unfold cvars. rewrite map_map. apply map_ext_in. intros b Hb0. now rewrite Hself.
    - eapply vrels_sig; eauto.
    - exact Ecb.
    - exact Hb. }
  rewrite <- ids_vars in He'.
  eapply (FL b0 k lbl (ctx0 ++ G) rho th st1 t1 st1'); try eassumption.
  - apply inv_push_list; auto. eapply inv_st_mono; eauto.
  - apply (check_bodies_in p _ _ (FsClause c0 x0 ctx0 b0) Hcb Hin).
  - rewrite <- ub_cids_app. exact Hubb.
  - unfold cvars. rewrite map_app. apply (nc_clauses_in _ _ (FsClause c0 x0 ctx0 b0) Hnc Hin).
  - eapply lifted_in_mono; eauto.
Qed.

(* <x | case {..}>  =  switch x {..} *)
Lemma fl_switch_case : forall n, IHn n -> forall c1 x t1 ty c2 cls t2,
  FLs p q n (FsCut (FsXVar c1 x t1) ty (FsXCase c2 cls t2)).
Proof.
  intros n IH c1 x t1 ty c2 cls t2. start. cbn [rn_stmt] in Hsh. rewrite rn_term_xcase in Hsh.
  cbn [rn_term shrink_step shrink_cut] in Hsh. unfold shrink_identifier in Hsh.
  destruct (shrink_clauses _ _ (rn_clauses rho cls) st) as [[cls' st1]|] eqn:E1; [|discriminate Hsh]. cbn [sbind] in Hsh. invsh Hsh.
  apply cut_typing in Hck as (Hty & Hcp & Hck).
  apply var_typing in Hcp as Hcx.
  apply xcase_typing in Hck as (T & d & -> & Hd & Hcm & Hcb).
  rewrite ib_stmt_cut, ib_term_xcase in Hib. apply andb_prop in Hib as [_ Hib].
  cbn [ub_stmt] in Hub. rewrite ub_term_xcase in Hub. cbn [ub_term andb] in Hub.
  rewrite pfresh_switch in Hpf.
  cbn [CoreSem.fs2c_stmt] in Hrun. rewrite fs2c_term_xcase in Hrun. cbn [CoreSem.fs2c_term] in Hrun.
  core_step Hrun Hg n. cbn [CoreSem.khead CoreSem.cut_with_k] in Hrun.
  destruct (CoreSem.clookup e x) as [cv|] eqn:Hl; [|exfalso; eapply cont_stuck; eauto].
  destruct (erel_var p q _ _ _ _ _ _ _ _ _ _ _ He (inv_nd _ _ _ _ _ Hinv) Hcx ltac:(occ) Hl) as (HinA & av & Hla & Hv).
  destruct (vrel_prd_data_inv _ _ _ _ _ _ Hv (data_not_codata p Hdisj _ _ Hd)) as (d0 & K & sg & vs & avs & tn & -> & -> & Hd0 & Hx & Hvs).
  rewrite Hd in Hd0. inv_keep Hd0.
  cbn [CoreSem.interact_val] in Hrun.
  destruct (select_sim n (IH n ltac:(lia)) k lbl CCns T d cls G rho th st cls' st' A e ae K sg vs avs) as (cl & e1 & Hf & Hb & Hbeh); auto.
  { eapply nc_cut_case_r; eauto. }
  { eapply erel_weaken; [exact He | lia | intros y Hy; occx | apply incl_refl]. }
  { eapply vrels_le; [|exact Hvs]. lia. }
  destruct (Hbeh _ _ Hrun Hg) as [m Hm].
  exists (S m). rewrite arn_switch. cbn [exec_named]. unfold lookup_id. rewrite Hla, Hf, Hb. exact Hm.
Qed.

(* <cocase {..} | a>  =  switch a {..} *)
Lemma fl_switch_cocase : forall n, IHn n -> forall c1 cls t1 ty c2 b t2,
  FLs p q n (FsCut (FsXCase c1 cls t1) ty (FsXVar c2 b t2)).
Proof.
  intros n IH c1 cls t1 ty c2 b t2. start. cbn [rn_stmt] in Hsh. rewrite rn_term_xcase in Hsh.
  cbn [rn_term shrink_step shrink_cut] in Hsh. unfold shrink_identifier in Hsh.
  destruct (shrink_clauses _ _ (rn_clauses rho cls) st) as [[cls' st1]|] eqn:E1; [|discriminate Hsh]. cbn [sbind] in Hsh. invsh Hsh.
  apply cut_typing in Hck as (Hty & Hcp & Hck).
  apply var_typing in Hck as Hcx.
  apply xcase_typing in Hcp as (T & d & -> & Hd & Hcm & Hcb).
  rewrite ib_stmt_cut, ib_term_xcase in Hib. apply andb_prop in Hib as [Hib _].
  cbn [ub_stmt] in Hub. rewrite ub_term_xcase in Hub. cbn [ub_term] in Hub. rewrite andb_true_r in Hub.
  rewrite pfresh_switch in Hpf.
  cbn [CoreSem.fs2c_stmt] in Hrun. rewrite fs2c_term_xcase in Hrun. cbn [CoreSem.fs2c_term] in Hrun.
  core_step Hrun Hg n. cbn [CoreSem.khead] in Hrun.
  destruct (CoreSem.clookup e b) as [cv|] eqn:Hl; [|exfalso; eapply cont_stuck; eauto].
  destruct (erel_var p q _ _ _ _ _ _ _ _ _ _ _ He (inv_nd _ _ _ _ _ Hinv) Hcx ltac:(occ) Hl) as (HinA & av & Hla & Hv).
  destruct (vrel_cns_codata_inv _ _ _ _ _ _ Hv (codata_is_codata p _ _ Hd)) as (d0 & K & sg & vs & avs & tn & -> & -> & Hd0 & Hx & Hvs).
  rewrite Hd in Hd0. inv_keep Hd0.
  cbn [CoreSem.cut_with_k CoreSem.interact_val] in Hrun.
  destruct (select_sim n (IH n ltac:(lia)) k lbl CPrd T d cls G rho th st cls' st' A e ae K sg vs avs) as (cl & e1 & Hf & Hb & Hbeh); auto.
  { eapply nc_cut_case_l; eauto. }
  { eapply erel_weaken; [exact He | lia | intros y Hy; cbn [occurs]; left; apply occ_term_xcase; assumption | apply incl_refl]. }
  { eapply vrels_le; [|exact Hvs]. lia. }
  destruct (Hbeh _ _ Hrun Hg) as [m Hm].
  exists (S m). rewrite arn_switch. cbn [exec_named]. unfold lookup_id. rewrite Hla, Hf, Hb. exact Hm.
Qed.

(* <mu a.s | case {..}>  =  create a = {..}; s *)
Lemma fl_create_case : forall n, IHn n -> forall c1 a s' t1 ty c2 cls t2,
  FLs p q n (FsCut (FsMu c1 a s' t1) ty (FsXCase c2 cls t2)).
Proof.
  intros n IH c1 a s' t1 ty c2 cls t2. start. cbn [rn_stmt] in Hsh. rewrite rn_term_xcase in Hsh.
  cbn [rn_term shrink_step shrink_cut] in Hsh. unfold shrink_identifier in Hsh.
  destruct (shrink_clauses _ _ (rn_clauses rho cls) st) as [[cls' st1]|] eqn:E1; [|discriminate Hsh]. cbn [sbind] in Hsh.
  destruct (shrink_stmt k _ (rn_stmt rho s') st1) as [[next st2]|] eqn:E2; [|discriminate Hsh]. cbn [sbind] in Hsh. invsh Hsh.
  apply cut_typing in Hck as (Hty & Hcp & Hck).
  apply mu_typing in Hcp as Hcs. cbn [opp] in Hcs.
  apply xcase_typing in Hck as (T & d & -> & Hd & Hcm & Hcb).
  rewrite ib_stmt_cut, ib_term_xcase, ib_term_mu in Hib. apply andb_prop in Hib as [Hib1 Hibc].
  apply andb_prop in Hib1 as [Hia Hibs]. apply id_le_le in Hia.
  cbn [ub_stmt] in Hub. rewrite ub_term_xcase in Hub. cbn [ub_term] in Hub. apply andb_prop in Hub as [Hub1 Hubc].
  apply andb_prop in Hub1 as [Hua Hubs]. apply negb_mem_notin in Hua.
  rewrite pfresh_create in Hpf. apply andb_prop in Hpf as [Hpf Hpn]. apply andb_prop in Hpf as [Hpc Hpa]. apply negb_memN_notin in Hpa.
  destruct (shrink_clauses_mono _ _ _ _ _ _ E1) as [Hm1 (nd1 & Hl1)].
  assert (Hinv1 : inv p G rho th st1) by (eapply inv_st_mono; eauto).
  destruct (shrink_stmt_mono _ _ _ _ _ _ E2) as [Hm2 (nd2 & Hl2)].
  assert (Hlift1 : lifted_in q st1) by (eapply lifted_in_mono; eauto).
  cbn [CoreSem.fs2c_stmt] in Hrun. rewrite fs2c_term_xcase in Hrun. cbn [CoreSem.fs2c_term] in Hrun.
  core_step Hrun Hg n. cbn [CoreSem.khead CoreSem.cut_with_k] in Hrun.
  set (kv := CoreSem.KCase (fs2c_clauses cls) e) in *.
  assert (Hrun' : CoreSem.crun n P (CoreSem.Run (CoreSem.fs2c_stmt s') ((a, BK kv) :: e)) out = r).
  { destruct (CoreSem.is_codata P (CDecl T)); exact Hrun. }
  clear Hrun.
  assert (Hco : is_codata codata (CDecl T) = false) by (eapply data_not_codata; eauto).
  assert (Hclo : vrel p q n CCns (CDecl T) (BK kv) (VClo T (arn_cls th cls') ae)).
  { apply VR_clo. apply cloR_intro; [exact Hco|]. intros j Hj tag fs sr (_ & d1 & sg & args & Hd1 & Hx & Hvs & ->).
    rewrite Hd in Hd1. inv_keep Hd1. unfold kv. cbn [CoreSem.interact_val]. apply relsV_vrelsF in Hvs.
    eapply (select_sim j (IH j ltac:(lia)) k lbl CCns T d cls G rho th st cls' st1 A e ae tag sg args fs); try eassumption.
    - eapply nc_cut_case_r; eauto.
    - eapply erel_weaken; [exact He | lia | intros y Hy; occx | apply incl_refl]. }
  assert (He' : erel p q n (fun y => occurs y s') (fun y => th (rho y)) (idn a :: A) (mkcb a CCns (CDecl T) :: G)
                  ((a, BK kv) :: e) ((a, VClo T (arn_cls th cls') ae) :: ae)).
  { eapply erel_bind; [exact He | lia | exact Hinv | exact Hua | exact Hia | exact Hpa | intros y Hy; occ | exact Hclo]. }
  destruct (IH n ltac:(lia) s' k lbl _ rho th st1 next st' _ _ _ (inv_push p _ _ _ _ _ CCns (CDecl T) Hinv1 Hua Hia) Hcs Hubs Hibs (nc_cut_mu_l _ _ _ _ _ _ _ Hnc) E2 Hpn Hlift He' _ _ Hrun' Hg) as [m Hm].
  exists (S m). rewrite arn_create. cbn [exec_named shrink_ty ty_name shrink_identifier]. exact Hm.
Qed.

(* <cocase {..} | mu~ x.s>  =  create x = {..}; s *)
Lemma fl_create_cocase : forall n, IHn n -> forall c1 cls t1 ty c2 x s' t2,
  FLs p q n (FsCut (FsXCase c1 cls t1) ty (FsMu c2 x s' t2)).
Proof.
  intros n IH c1 cls t1 ty c2 x s' t2. start. cbn [rn_stmt] in Hsh. rewrite rn_term_xcase in Hsh.
  cbn [rn_term shrink_step shrink_cut] in Hsh. unfold shrink_identifier in Hsh.
  destruct (shrink_clauses _ _ (rn_clauses rho cls) st) as [[cls' st1]|] eqn:E1; [|discriminate Hsh]. cbn [sbind] in Hsh.
  destruct (shrink_stmt k _ (rn_stmt rho s') st1) as [[next st2]|] eqn:E2; [|discriminate Hsh]. cbn [sbind] in Hsh. invsh Hsh.
  apply cut_typing in Hck as (Hty & Hcp & Hck).
  apply mu_typing in Hck as Hcs. cbn [opp] in Hcs.
  apply xcase_typing in Hcp as (T & d & -> & Hd & Hcm & Hcb).
  rewrite ib_stmt_cut, ib_term_xcase, ib_term_mu in Hib. apply andb_prop in Hib as [Hibc Hib1].
  apply andb_prop in Hib1 as [Hix Hibs]. apply id_le_le in Hix.
  cbn [ub_stmt] in Hub. rewrite ub_term_xcase in Hub. cbn [ub_term] in Hub. apply andb_prop in Hub as [Hubc Hub1].
  apply andb_prop in Hub1 as [Hux Hubs]. apply negb_mem_notin in Hux.
  rewrite pfresh_create in Hpf. apply andb_prop in Hpf as [Hpf Hpn]. apply andb_prop in Hpf as [Hpc Hpx]. apply negb_memN_notin in Hpx.
  destruct (shrink_clauses_mono _ _ _ _ _ _ E1) as [Hm1 (nd1 & Hl1)].
  assert (Hinv1 : inv p G rho th st1) by (eapply inv_st_mono; eauto).
  destruct (shrink_stmt_mono _ _ _ _ _ _ E2) as [Hm2 (nd2 & Hl2)].
  assert (Hlift1 : lifted_in q st1) by (eapply lifted_in_mono; eauto).
  cbn [CoreSem.fs2c_stmt] in Hrun. rewrite fs2c_term_xcase in Hrun. cbn [CoreSem.fs2c_term] in Hrun.
  core_step Hrun Hg n. cbn [CoreSem.khead CoreSem.cut_with_k CoreSem.interact_val cont] in Hrun.
  set (pv := CoreSem.PCocase (fs2c_clauses cls) e) in *.
  assert (Hco : is_codata codata (CDecl T) = true) by (eapply codata_is_codata; eauto).
  assert (Hclo : vrel p q n CPrd (CDecl T) (BP pv) (VClo T (arn_cls th cls') ae)).
  { apply VR_clo. apply cloR_intro; [exact Hco|]. intros j Hj tag fs sr (_ & d1 & sg & args & Hd1 & Hx & Hvs & ->).
    rewrite Hd in Hd1. inv_keep Hd1. unfold pv. cbn [CoreSem.interact_val]. apply relsV_vrelsF in Hvs.
    eapply (select_sim j (IH j ltac:(lia)) k lbl CPrd T d cls G rho th st cls' st1 A e ae tag sg args fs); try eassumption.
    - eapply nc_cut_case_l; eauto.
    - eapply erel_weaken; [exact He | lia | intros y Hy; cbn [occurs]; left; apply occ_term_xcase; assumption | apply incl_refl]. }
  assert (He' : erel p q n (fun y => occurs y s') (fun y => th (rho y)) (idn x :: A) (mkcb x CPrd (CDecl T) :: G)
                  ((x, BP pv) :: e) ((x, VClo T (arn_cls th cls') ae) :: ae)).
  { eapply erel_bind; [exact He | lia | exact Hinv | exact Hux | exact Hix | exact Hpx | intros y Hy; occ | exact Hclo]. }
  destruct (IH n ltac:(lia) s' k lbl _ rho th st1 next st' _ _ _ (inv_push p _ _ _ _ _ CPrd (CDecl T) Hinv1 Hux Hix) Hcs Hubs Hibs (nc_cut_mu_r _ _ _ _ _ _ _ Hnc) E2 Hpn Hlift He' _ _ Hrun Hg) as [m Hm].
  exists (S m). rewrite arn_create. cbn [exec_named shrink_ty ty_name shrink_identifier]. exact Hm.
Qed.

Lemma occ_args : forall args (b : cbinding), In b args -> occ_ctx (cbvar b) args.
Proof. intros args b H. unfold occ_ctx, cvars. apply in_map. exact H. Qed.

(* <K(args) | mu~ x.s>  =  let x = K(args); s *)
Lemma fl_let_ctor : forall n, IHn n -> forall c1 K args t1 ty c2 x s' t2,
  FLs p q n (FsCut (FsXtor c1 K args t1) ty (FsMu c2 x s' t2)).
Proof.
  intros n IH c1 K args t1 ty c2 x s' t2. start. cbn [rn_stmt rn_term shrink_step shrink_cut] in Hsh. unfold shrink_identifier in Hsh.
  destruct (shrink_stmt k _ (rn_stmt rho s') st) as [[next st1]|] eqn:E1; [|discriminate Hsh]. cbn [sbind] in Hsh. invsh Hsh.
  apply cut_typing in Hck as (Hty & Hcp & Hck).
  apply xtor_typing in Hcp as (T & d & sg & -> & Hd & Hx & Hfa).
  apply mu_typing in Hck as Hcs. cbn [opp] in Hcs.
  rewrite ib_stmt_cut, ib_term_mu in Hib. apply andb_prop in Hib as [_ Hib]. apply andb_prop in Hib as [Hix Hib]. apply id_le_le in Hix.
  cbn [ub_stmt ub_term andb] in Hub. apply andb_prop in Hub as [Hux Hub]. apply negb_mem_notin in Hux.
  cbn [pfresh] in Hpf. apply andb_prop in Hpf as [Hpx Hpf]. apply negb_memN_notin in Hpx.
  cbn [CoreSem.fs2c_stmt CoreSem.fs2c_term] in Hrun. core_step Hrun Hg n.
  apply start_args_eval in Hrun as (n1 & vs & Hle & Hvs & Hrun); [|exact Hg]. cbn [CoreSem.finish_args cont] in Hrun.
  core_step Hrun Hg n1. cbn [CoreSem.khead CoreSem.interact_val cont] in Hrun.
  assert (Hneed : forall b, In b args -> occurs (cbvar b) (FsCut (FsXtor c1 K args t1) (CDecl T) (FsMu c2 x s' t2))).
  { intros b Hb. cbn [occurs occ_term]. left. now apply occ_args. }
  destruct (args_rel p q _ _ _ _ _ _ _ _ He (inv_nd _ _ _ _ _ Hinv) _ _ _ Hfa Hneed Hvs) as (avs & Hlk & Hrel).
  assert (He' : erel p q n1 (fun y => occurs y s') (fun y => th (rho y)) (idn x :: A) (mkcb x CPrd (CDecl T) :: G)
                  ((x, BP (PCtor K vs)) :: e) ((x, VObj T K avs) :: ae)).
  { eapply erel_bind; [exact He | lia | exact Hinv | exact Hux | exact Hix | exact Hpx | intros y Hy; occ | eapply VR_ctor; try eassumption; [eapply data_not_codata; eauto | eapply vrels_le; [|exact Hrel]; lia]]. }
  destruct (IH n1 ltac:(lia) s' k lbl _ rho th st next st' _ _ _ (inv_push p _ _ _ _ _ CPrd (CDecl T) Hinv Hux Hix) Hcs Hub Hib (nc_cut_mu_r _ _ _ _ _ _ _ Hnc) E1 Hpf Hlift He' _ _ Hrun Hg) as [m Hm].
  exists (S m). cbn [arn exec_named shrink_ty ty_name shrink_identifier]. rewrite vars_arn_shrink_rn, Hlk. exact Hm.
Qed.

(* <mu a.s | D(args)>  =  let a = D(args); s *)
Lemma fl_let_dtor : forall n, IHn n -> forall c1 a s' t1 ty c2 K args t2,
  FLs p q n (FsCut (FsMu c1 a s' t1) ty (FsXtor c2 K args t2)).
Proof.
  intros n IH c1 a s' t1 ty c2 K args t2. start. cbn [rn_stmt rn_term shrink_step shrink_cut] in Hsh. unfold shrink_identifier in Hsh.
  destruct (shrink_stmt k _ (rn_stmt rho s') st) as [[next st1]|] eqn:E1; [|discriminate Hsh]. cbn [sbind] in Hsh. invsh Hsh.
  apply cut_typing in Hck as (Hty & Hcp & Hck).
  apply xtor_typing in Hck as (T & d & sg & -> & Hd & Hx & Hfa).
  apply mu_typing in Hcp as Hcs. cbn [opp] in Hcs.
  rewrite ib_stmt_cut, ib_term_mu in Hib. apply andb_prop in Hib as [Hib _]. apply andb_prop in Hib as [Hia Hib]. apply id_le_le in Hia.
  cbn [ub_stmt ub_term] in Hub. rewrite andb_true_r in Hub. apply andb_prop in Hub as [Hua Hub]. apply negb_mem_notin in Hua.
  cbn [pfresh] in Hpf. apply andb_prop in Hpf as [Hpa Hpf]. apply negb_memN_notin in Hpa.
  cbn [CoreSem.fs2c_stmt CoreSem.fs2c_term] in Hrun. core_step Hrun Hg n.
  apply start_args_eval in Hrun as (n1 & vs & Hle & Hvs & Hrun); [|exact Hg]. cbn [CoreSem.finish_args cont] in Hrun.
  core_step Hrun Hg n1. cbn [CoreSem.cut_with_k] in Hrun.
  assert (Hrun' : CoreSem.crun n1 P (CoreSem.Run (CoreSem.fs2c_stmt s') ((a, BK (KDtor K vs)) :: e)) out = r).
  { destruct (CoreSem.is_codata P (CDecl T)); exact Hrun. }
  clear Hrun.
  assert (Hneed : forall b, In b args -> occurs (cbvar b) (FsCut (FsMu c1 a s' t1) (CDecl T) (FsXtor c2 K args t2))).
  { intros b Hb. cbn [occurs occ_term]. right. now apply occ_args. }
  destruct (args_rel p q _ _ _ _ _ _ _ _ He (inv_nd _ _ _ _ _ Hinv) _ _ _ Hfa Hneed Hvs) as (avs & Hlk & Hrel).
  assert (He' : erel p q n1 (fun y => occurs y s') (fun y => th (rho y)) (idn a :: A) (mkcb a CCns (CDecl T) :: G)
                  ((a, BK (KDtor K vs)) :: e) ((a, VObj T K avs) :: ae)).
  { eapply erel_bind; [exact He | lia | exact Hinv | exact Hua | exact Hia | exact Hpa | intros y Hy; occ | eapply VR_dtor; try eassumption; [eapply codata_is_codata; eauto | eapply vrels_le; [|exact Hrel]; lia]]. }
  destruct (IH n1 ltac:(lia) s' k lbl _ rho th st next st' _ _ _ (inv_push p _ _ _ _ _ CCns (CDecl T) Hinv Hua Hia) Hcs Hub Hib (nc_cut_mu_l _ _ _ _ _ _ _ Hnc) E1 Hpf Hlift He' _ _ Hrun' Hg) as [m Hm].
  exists (S m). cbn [arn exec_named shrink_ty ty_name shrink_identifier]. rewrite vars_arn_shrink_rn, Hlk. exact Hm.
Qed.

(* <K(args) | a>  =  invoke a K(args) *)
Lemma fl_invoke_ctor : forall n, IHn n -> forall c1 K args t1 ty c2 b t2,
  FLs p q n (FsCut (FsXtor c1 K args t1) ty (FsXVar c2 b t2)).
Proof.
  intros n IH c1 K args t1 ty c2 b t2. start. cbn [rn_stmt rn_term shrink_step shrink_cut] in Hsh. unfold shrink_identifier in Hsh.
  invsh Hsh.
  apply cut_typing in Hck as (Hty & Hcp & Hck).
  apply xtor_typing in Hcp as (T & d & sg & -> & Hd & Hx & Hfa).
  apply var_typing in Hck as Hcb.
  cbn [CoreSem.fs2c_stmt CoreSem.fs2c_term] in Hrun. core_step Hrun Hg n.
  apply start_args_eval in Hrun as (n1 & vs & Hle & Hvs & Hrun); [|exact Hg]. cbn [CoreSem.finish_args cont] in Hrun.
  core_step Hrun Hg n1. cbn [CoreSem.khead] in Hrun.
  destruct (CoreSem.clookup e b) as [cv|] eqn:Hl; [|exfalso; eapply cont_stuck; eauto].
  destruct (erel_var p q _ _ _ _ _ _ _ _ _ _ _ He (inv_nd _ _ _ _ _ Hinv) Hcb ltac:(occ) Hl) as (HinA & av & Hla & Hv).
  destruct (vrel_kind_bk _ _ _ _ _ _ Hv) as [kv ->].
  assert (Hco : is_codata codata (CDecl T) = false) by (eapply data_not_codata; eauto).
  destruct (vrel_clo_inv _ _ _ _ _ _ _ Hv Hco) as (tn & cls & ce & -> & Hc).
  assert (Hneed : forall b0, In b0 args -> occurs (cbvar b0) (FsCut (FsXtor c1 K args t1) (CDecl T) (FsXVar c2 b t2))).
  { intros b0 Hb. cbn [occurs occ_term]. left. now apply occ_args. }
  destruct (args_rel p q _ _ _ _ _ _ _ _ He (inv_nd _ _ _ _ _ Hinv) _ _ _ Hfa Hneed Hvs) as (avs & Hlk & Hrel).
  eapply cloR_le with (k := S n1) in Hc; [|lia].
  destruct (invoke_clo p q n1 CCns (CDecl T) (BK kv) tn cls ce K avs (CoreSem.interact_val (PCtor K vs) kv) out r Hc)
    as (cl & e1 & m & Hf & Hb & Hm); [| exact Hrun | exact Hg |].
  { split; [exact Hco|]. exists d, sg, vs. repeat split; auto. apply relsV_vrelsF. eapply vrels_le; [|exact Hrel]. lia. }
  exists (S m). cbn [arn exec_named shrink_identifier]. unfold lookup_id. rewrite Hla, Hf, vars_arn_shrink_rn, Hlk, Hb. exact Hm.
Qed.

(* <x | D(args)>  =  invoke x D(args) *)
Lemma fl_invoke_dtor : forall n, IHn n -> forall c1 x t1 ty c2 K args t2,
  FLs p q n (FsCut (FsXVar c1 x t1) ty (FsXtor c2 K args t2)).
Proof.
  intros n IH c1 x t1 ty c2 K args t2. start. cbn [rn_stmt rn_term shrink_step shrink_cut] in Hsh. unfold shrink_identifier in Hsh.
  invsh Hsh.
  apply cut_typing in Hck as (Hty & Hcp & Hck).
  apply xtor_typing in Hck as (T & d & sg & -> & Hd & Hx & Hfa).
  apply var_typing in Hcp as Hcx.
  cbn [CoreSem.fs2c_stmt CoreSem.fs2c_term] in Hrun. core_step Hrun Hg n.
  apply start_args_eval in Hrun as (n1 & vs & Hle & Hvs & Hrun); [|exact Hg]. cbn [CoreSem.finish_args cont] in Hrun.
  core_step Hrun Hg n1. cbn [CoreSem.cut_with_k] in Hrun.
  destruct (CoreSem.clookup e x) as [cv|] eqn:Hl; [|exfalso; eapply cont_stuck; eauto].
  destruct (erel_var p q _ _ _ _ _ _ _ _ _ _ _ He (inv_nd _ _ _ _ _ Hinv) Hcx ltac:(occ) Hl) as (HinA & av & Hla & Hv).
  destruct (vrel_kind_bp _ _ _ _ _ _ Hv) as [pv ->].
  assert (Hco : is_codata codata (CDecl T) = true) by (eapply codata_is_codata; eauto).
  destruct (vrel_clo_inv _ _ _ _ _ _ _ Hv Hco) as (tn & cls & ce & -> & Hc).
  assert (Hneed : forall b0, In b0 args -> occurs (cbvar b0) (FsCut (FsXVar c1 x t1) (CDecl T) (FsXtor c2 K args t2))).
  { intros b0 Hb. cbn [occurs occ_term]. right. now apply occ_args. }
  destruct (args_rel p q _ _ _ _ _ _ _ _ He (inv_nd _ _ _ _ _ Hinv) _ _ _ Hfa Hneed Hvs) as (avs & Hlk & Hrel).
  eapply cloR_le with (k := S n1) in Hc; [|lia].
  destruct (invoke_clo p q n1 CPrd (CDecl T) (BP pv) tn cls ce K avs (CoreSem.interact_val pv (KDtor K vs)) out r Hc)
    as (cl & e1 & m & Hf & Hb & Hm); [| exact Hrun | exact Hg |].
  { split; [exact Hco|]. exists d, sg, vs. repeat split; auto. apply relsV_vrelsF. eapply vrels_le; [|exact Hrel]. lia. }
  exists (S m). cbn [arn exec_named shrink_identifier]. unfold lookup_id. rewrite Hla, Hf, vars_arn_shrink_rn, Hlk, Hb. exact Hm.
Qed.

Lemma alias_names : forall G rho th st ctx args, inv p G rho th st -> NoDup (cids ctx) ->
  (forall i, In i (cids ctx) -> ~ In i (cids G) /\ (i <= m0)%N) -> List.length args = List.length ctx ->
  map (fun b => th (subst_ident (combine (cids ctx) (cvars (rn_ctx rho args))) (rho (cbvar b)))) ctx
  = map (fun a => th (rho (cbvar a))) args.
Proof.
  intros G rho th st ctx args Hinv Hnd Hids Hlen.
  transitivity (map th (map (fun b => subst_ident (combine (cids ctx) (cvars (rn_ctx rho args))) (cbvar b)) ctx)).
  - rewrite map_map. apply map_ext_in. intros b Hb.
    assert (Hbi : In (cid_id (cbvar b)) (cids ctx)) by (unfold cids; apply in_map_iff; eauto).
    destruct (Hids _ Hbi). rewrite (inv_rho _ _ _ _ _ Hinv); auto.
  - rewrite subst_combine_map; [|exact Hnd|].
    + rewrite cvars_rn_ctx. unfold cvars. rewrite !map_map. reflexivity.
    + rewrite cvars_rn_ctx. unfold cvars. rewrite !map_length. exact Hlen.
Qed.

Lemma known_sim : forall j, FLn p q j ->
  forall k lbl side T d cls G rho th st t st' A e ae K sg args vs what,
  inv p G rho th st ->
  clauses_match side T cls (ctxtors d) = None -> check_bodies data codata defs G cls = None ->
  ub_clauses (cids G) cls = true -> ib_clauses m0 cls = true -> nc_clauses (cvars G) cls = true ->
  find_cxtor d K = Some sg -> fargs_ok what G args (cxargs sg) = None ->
  shrink_known_cuts (shrink_stmt k (mksenv D codata lbl)) K (cvars (rn_ctx rho args)) (rn_clauses rho cls) st = SOk (t, st') ->
  pfresh A t = true -> lifted_in q st' ->
  erel p q j (fun x => occ_ctx x args \/ occ_clauses x cls) (fun x => th (rho x)) A G e ae ->
  omap (arg_val e) args = Some vs ->
  beh p q j (CoreSem.select (fs2c_clauses cls) e K vs) ae (arn th t).
Proof.
  intros j FL k lbl side T d cls G rho th st t st' A e ae K sg args vs what Hinv Hcm Hcb Hub Hib Hnc Hx Hfa Hsh Hpf Hlift He Hvs.
  destruct (clauses_match_find _ _ _ _ _ _ Hcm Hx) as (cl0 & Hf & Hn & Hps).
  assert (Hin : In cl0 cls) by (apply find_some in Hf; tauto).
  destruct (ib_clauses_in p _ _ Hib Hin) as [Hibc Hibb].
  destruct (ub_clauses_in _ _ _ Hub Hin) as [Hubc Hubb]. apply fresh_ids_spec in Hubc as [Hnd Hnotin].
  unfold shrink_known_cuts in Hsh. rewrite find_rn_clauses, Hf in Hsh. cbn [option_map] in Hsh.
  destruct cl0 as [c0 x0 ctx0 b0]. cbn [rn_clause clause_ctx clause_body clause_xtor] in *.
  rewrite subst_is_rn, rn_comp in Hsh.
  assert (Hneed : forall b, In b args -> occ_ctx (cbvar b) args \/ occ_clauses (cbvar b) cls).
  { intros b Hb. left. now apply occ_args. }
  destruct (args_rel p q _ _ _ _ _ _ _ _ He (inv_nd _ _ _ _ _ Hinv) _ _ _ Hfa Hneed Hvs) as (avs & Hlk & Hrel).
  pose proof (args_scope p q _ _ _ _ _ _ _ He (inv_nd _ _ _ _ _ Hinv) _ _ Hneed Hvs) as Hscope.
  assert (Hids : forall i, In i (cids ctx0) -> ~ In i (cids G) /\ (i <= m0)%N).
  { intros i Hi. split; [now apply Hnotin | eapply ctx_le_ids; eauto]. }
  assert (Hlen : List.length args = List.length ctx0).
  { rewrite (fparams_ok_length _ _ Hps). eapply fargs_ok_length; eauto. }
  pose proof (alias_names _ _ _ _ _ _ Hinv Hnd Hids Hlen) as Hnames.
  intros out r Hr Hg. unfold CoreSem.select in Hr. rewrite cfind_clause_fs2c, Hf in Hr. cbn [option_map] in Hr.
  cbn [CoreSem.fs2c_clause CoreSem.cl_ctx CoreSem.cl_body] in Hr.
  destruct (CoreSem.cbind (cvars ctx0) vs e) as [e'|] eqn:Ecb; [|exfalso; eapply cont_stuck; eauto].
  cbn [cont] in Hr.
  set (zs := cvars (rn_ctx rho args)) in *.
  assert (Hinv' : inv p (ctx0 ++ G) (fun y => subst_ident (combine (cids ctx0) zs) (rho y)) th st).
  { apply inv_ext; auto. intros z Hz. unfold zs in Hz. rewrite cvars_rn_ctx in Hz. unfold cvars in Hz. rewrite map_map in Hz.
    apply in_map_iff in Hz as (a & <- & Ha). destruct (Hscope a Ha) as (_ & b1 & Hb1 & <-). apply (inv_rng _ _ _ _ _ Hinv). exact Hb1. }
  assert (He' : erel p q j (fun y => occurs y b0) (fun y => th (subst_ident (combine (cids ctx0) zs) (rho y))) A (ctx0 ++ G) e' ae).
  { eapply erel_alias_list with (pi := fun y => th (rho y)) (vs := vs) (avs := avs).
    - exact He.
    - intros b Hb Hn0. split.
      + right. exists (FsClause c0 x0 ctx0 b0). split; [exact Hin | exact Hn0].
      + cbn beta. rewrite (inv_old p _ _ _ _ _ zs _ Hinv Hb Hids). reflexivity.
    - eapply vrels_sig; eauto.
    - cbn beta. etransitivity; [|exact Hlk]. f_equal. exact Hnames.
    - intros b Hb. assert (Hi : In (th (subst_ident (combine (cids ctx0) zs) (rho (cbvar b))))
                                   (map (fun b => th (subst_ident (combine (cids ctx0) zs) (rho (cbvar b)))) ctx0)) by (apply in_map_iff; eauto).
      rewrite Hnames in Hi. apply in_map_iff in Hi as (a & <- & Ha). apply (Hscope a Ha).
    - exact Ecb. }
  eapply (FL b0 k lbl (ctx0 ++ G) _ th st t st'); try eassumption.
  - apply (check_bodies_in p _ _ (FsClause c0 x0 ctx0 b0) Hcb Hin).
  - rewrite <- ub_cids_app. exact Hubb.
  - unfold cvars. rewrite map_app. apply (nc_clauses_in _ _ (FsClause c0 x0 ctx0 b0) Hnc Hin).
Qed.

Lemma fl_known_ctor : forall n, IHn n -> forall c1 K args t1 ty c2 cls t2,
  FLs p q n (FsCut (FsXtor c1 K args t1) ty (FsXCase c2 cls t2)).
Proof.
  intros n IH c1 K args t1 ty c2 cls t2. start. cbn [rn_stmt] in Hsh. rewrite rn_term_xcase in Hsh.
  cbn [rn_term shrink_step shrink_cut] in Hsh.
  apply cut_typing in Hck as (Hty & Hcp & Hck).
  apply xtor_typing in Hcp as (T & d & sg & -> & Hd & Hx & Hfa).
  apply xcase_typing in Hck as (T' & d' & ET & Hd' & Hcm & Hcb). injection ET as <-.
  rewrite Hd in Hd'. injection Hd' as <-.
  rewrite ib_stmt_cut, ib_term_xcase in Hib. apply andb_prop in Hib as [_ Hib].
  cbn [ub_stmt] in Hub. rewrite ub_term_xcase in Hub. cbn [ub_term andb] in Hub.
  cbn [CoreSem.fs2c_stmt] in Hrun. rewrite fs2c_term_xcase in Hrun. cbn [CoreSem.fs2c_term] in Hrun.
  core_step Hrun Hg n.
  apply start_args_eval in Hrun as (n1 & vs & Hle & Hvs & Hrun); [|exact Hg]. cbn [CoreSem.finish_args cont] in Hrun.
  core_step Hrun Hg n1. cbn [CoreSem.khead CoreSem.interact_val] in Hrun.
  eapply (known_sim n1 (IH n1 ltac:(lia)) k lbl CCns T d cls G rho th st t st' A e ae K sg args vs); try eassumption.
  { eapply nc_cut_case_r; eauto. }
  eapply erel_weaken; [exact He | lia | | apply incl_refl].
  intros y [Hy|Hy]; cbn [occurs occ_term]; [left; exact Hy | right; apply occ_term_xcase; assumption].
Qed.

Lemma fl_known_dtor : forall n, IHn n -> forall c1 cls t1 ty c2 K args t2,
  FLs p q n (FsCut (FsXCase c1 cls t1) ty (FsXtor c2 K args t2)).
Proof.
  intros n IH c1 cls t1 ty c2 K args t2. start. cbn [rn_stmt] in Hsh. rewrite rn_term_xcase in Hsh.
  cbn [rn_term shrink_step shrink_cut] in Hsh.
  apply cut_typing in Hck as (Hty & Hcp & Hck).
  apply xtor_typing in Hck as (T & d & sg & -> & Hd & Hx & Hfa).
  apply xcase_typing in Hcp as (T' & d' & ET & Hd' & Hcm & Hcb). injection ET as <-.
  rewrite Hd in Hd'. injection Hd' as <-.
  rewrite ib_stmt_cut, ib_term_xcase in Hib. apply andb_prop in Hib as [Hib _].
  cbn [ub_stmt] in Hub. rewrite ub_term_xcase in Hub. cbn [ub_term] in Hub. rewrite andb_true_r in Hub.
  cbn [CoreSem.fs2c_stmt] in Hrun. rewrite fs2c_term_xcase in Hrun. cbn [CoreSem.fs2c_term] in Hrun.
  core_step Hrun Hg n.
  apply start_args_eval in Hrun as (n1 & vs & Hle & Hvs & Hrun); [|exact Hg]. cbn [CoreSem.finish_args cont] in Hrun.
  core_step Hrun Hg n1. cbn [CoreSem.cut_with_k CoreSem.interact_val] in Hrun.
  eapply (known_sim n1 (IH n1 ltac:(lia)) k lbl CPrd T d cls G rho th st t st' A e ae K sg args vs); try eassumption.
  { eapply nc_cut_case_l; eauto. }
  eapply erel_weaken; [exact He | lia | | apply incl_refl].
  intros y [Hy|Hy]; cbn [occurs occ_term]; [right; exact Hy | left; apply occ_term_xcase; assumption].
Qed.
End Cases.
