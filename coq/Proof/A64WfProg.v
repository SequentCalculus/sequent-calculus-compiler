(* C14, AArch64: [a64_compile_asm_wf] (asm_wf cs = None for every program inside the boolean guards of
   Sem/WfGuard64.v) and [a64_compile_code_small].
   From the per-method lemmas of Proof/A64WfAll.v through the generic theorem Proof/CodegenForallLinP.v (every piece
   of code_statement's output comes from a back-end method; its two bounds are 4096 targets of one variable - from the
   capacity, tfp_cap - and the largest number of xtors of a type of the program, max_xtors: no guard is needed), the label
   theorems of Proof/LabelThms.v (labels once, references defined) and the size theorem of C19 (Proof/SizeA64.v:
   at most 28 + 85 * cg_bound_defs instructions) in its two-weight refinement Proof/SizeA64Fine.v (28 + cg_fine_defs 14 74
   instructions of 4 bytes each - below the reach of B.cond / ADR under reach_guard_a64). *)
From Coq Require Import List ZArith NArith String Ascii Bool Lia.
From SCC Require Import Lang.AxSyn Lang.AxSize Model.Backend Model.LinCheck Model.A64 Model.SizeWf Sem.A64Sem
     Sem.A64Wf Sem.LabelGuard Sem.WfGuard Sem.WfGuard64 Proof.LinBasics Proof.LabelStrings Proof.LabelGen
     Proof.LabelsA64 Proof.LabelThms Proof.CodegenForallLin Proof.CodegenForallLinP Proof.SimFrag Proof.A64SimAddr
     Proof.SizeCodegenWf Proof.SizeA64 Proof.SizeA64Fine Proof.SubstBackends Proof.A64WfAll.
From SCC Require Proof.X86WfAll Proof.X86WfCor.
Import ListNotations.
Local Open Scope string_scope.
Local Open Scope list_scope.

Lemma hash_same l : is_hash_label l = Sem.X86Wf.is_hash_label l.
Proof. reflexivity. Qed.

(* fewer than 281 positions have a temporary (26 registers, 255 spill slots) *)
Lemma tfp_cap q t : temporary_from_position q = Ok t -> (q < 2 * A64_SUBST_MAX)%N.
Proof.
  unfold temporary_from_position, A64_SUBST_MAX. change RESERVED with 4%N. change REGISTER_NUM with 30%N. change SPILL_NUM with 256%N.
  change RESERVED_SPILLS with 1%N. destruct (N.ltb_spec (q + 4) 30); [intros _; lia|].
  destruct (N.ltb_spec (q + 4 - 30 + 1) 256); [intros _; lia|discriminate].
Qed.

Lemma max_xtors_le types : xtors_le (max_xtors types) types = true.
Proof.
  unfold xtors_le. apply forallb_forall. intros d Hd. apply N.leb_le.
  induction types as [|d0 r IH]; [destruct Hd|]. cbn [max_xtors fold_right]. destruct Hd as [<-|Hd]; [lia|].
  specialize (IH Hd). fold (max_xtors r). lia.
Qed.

Section Prog.
Variable p : prog.
Hypothesis PN : plain_names p = true.
Hypothesis PT : plain_types p = true.

Lemma a64_translate_W defs lc code lc' :
  forallb (fun d => lin_check (sigs_of p) (dctx d) (dbody d) && stmt_immP any_lit (dbody d)) defs = true ->
  (forall d, In d defs -> In d (pdefs p)) ->
  translate a64_backend (ptypes p) defs lc = Ok (code, lc') -> W code.
Proof.
  intros G SUB H.
  apply (translate_QLP a64_backend a64_backend_ok (sigs_of p) A64_SUBST_MAX (max_xtors (ptypes p)) any_lit temp_enc W X86WfAll.Lp W_nil W_app)
    with (defs := defs) (lc := lc) (lc' := lc');
    cbn [a64_backend a64_backend_with b_temporary_from_position b_temp b_return1 b_label b_mark b_jump b_jump_label b_jump_label_fixed
         b_jcc2 b_jcc1 b_load_immediate b_load_label b_add_and_jump b_arith b_mov b_print b_erase b_share_n b_store b_load
         b_store_temporary b_restore_temporary b_jump_length sg_types sigs_of]; try assumption.
  - exact tfp_enc.
  - exact reg_TEMP.
  - reflexivity.
  - intros l _. wf.
  - intros c. exact W_nil.
  - exact W_jump.
  - intros l HL. unfold X86WfAll.Lp in HL. rewrite <- hash_same in HL. wf.
  - intros l HL. unfold X86WfAll.Lp in HL. rewrite <- hash_same in HL. wf.
  - intros s a b l A Bb HL. apply W_app; [apply W_compare; assumption|apply W_bcc; rewrite hash_same; exact HL].
  - intros s a l A HL. apply W_app; [apply W_compare_immediate; assumption|apply W_bcc; rewrite hash_same; exact HL].
  - intros t i T _. apply W_load_immediate; exact T.
  - intros t k T K. apply W_load_immediate; exact T.
  - intros t l T HL. apply W_load_label; [exact T|rewrite hash_same; exact HL].
  - intros t k T _. apply W_add_and_jump; exact T.
  - intros o t a b T A Bb _ _. apply W_arith; auto.
  - intros a A. apply W_arith; [exact reg_TEMP|exact reg_TEMP|exact A].
  - exact W_mov.
  - intros nl t c T. apply W_print; exact T.
  - intros t l T. apply W_erase; exact T.
  - intros t n l T N. apply W_share; assumption.
  - intros a r l c l'. apply W_a_store.
  - intros a r l c l'. apply W_a_load.
  - exact W_store_temporary.
  - exact W_restore_temporary.
  - intros k. reflexivity.
  - reflexivity.
  - exact (X86WfAll.L_def_p p PN).
  - exact (X86WfAll.L_type_p p PT).
  - apply max_xtors_le.
  - exact tfp_cap.
  - intros d Hd. destruct (lookup_label_def p d (SUB d Hd)) as [ps E]. exact (X86WfAll.L_def_p p PN _ _ E).
Qed.
End Prog.

Lemma stmt_imm_any : forall s, stmt_immP any_lit s = true.
Proof.
  induction s using stmt_ind2; cbn [stmt_immP any_lit andb]; auto.
  - induction H as [|[[x cx] b] r Hb Hr IHr]; [reflexivity|]. unfold cl_body in Hb; cbn [snd] in Hb. rewrite Hb. exact IHr.
  - rewrite IHs, andb_true_r. induction H as [|[[x cx] b] r Hb Hr IHr]; [reflexivity|]. unfold cl_body in Hb; cbn [snd] in Hb. rewrite Hb. exact IHr.
  - rewrite IHs1, IHs2. reflexivity.
Qed.

(* from the facts to asm_wf *)
Lemma mem_str_In x l : mem_str x l = true <-> In x l.
Proof.
  unfold mem_str. rewrite existsb_exists. split.
  - intros (y & I & E). apply String.eqb_eq in E. subst. exact I.
  - intros I. exists x. split; [exact I|apply String.eqb_refl].
Qed.
Lemma first_dup_NoDup l : NoDup l -> first_dup l = None.
Proof.
  induction l as [|x r IH]; intros N; [reflexivity|]. inversion N as [|? ? NI N']; subst. cbn [first_dup].
  destruct (mem_str x r) eqn:M; [apply mem_str_In in M; contradiction|]. exact (IH N').
Qed.
Lemma find_none_intro {X} (f : X -> bool) l : (forall x, In x l -> f x = false) -> find f l = None.
Proof.
  induction l as [|x l IH]; intros H; [reflexivity|]. cbn [find]. rewrite (H x (or_introl eq_refl)).
  apply IH. intros y Hy. apply H. right. exact Hy.
Qed.
Lemma defined_labels_filter cs :
  defined_labels cs = filter (fun l => negb (is_hash_label l)) (LabelGen.defs all_defs cs).
Proof.
  unfold defined_labels, LabelGen.defs. induction cs as [|c cs IH]; [reflexivity|]. cbn [flat_map]. rewrite filter_app, IH. f_equal.
  destruct c; try reflexivity. cbn [all_defs filter]. destruct (is_hash_label l); reflexivity.
Qed.
Lemma W_parts body :
  W body ->
  (forall l, In l (flat_map referenced body) -> is_hash_label l = false) /\
  (forall l, In l (calls body) -> l = "print_i64" \/ l = "println_i64") /\
  globals body = [] /\ (forall c, In c body -> instr_wf c = true).
Proof.
  intros H. unfold W in H. rewrite Forall_forall in H. repeat split.
  - intros l Hl. apply in_flat_map in Hl as (c & Hc & Hl). specialize (H c Hc). unfold cok in H.
    apply andb_true_iff in H as [H _]. apply andb_true_iff in H as [_ H]. rewrite forallb_forall in H. specialize (H l Hl).
    destruct (is_hash_label l); [discriminate|reflexivity].
  - intros l Hl. unfold calls in Hl. apply in_flat_map in Hl as (c & Hc & Hl). specialize (H c Hc).
    destruct c; cbn [In] in Hl; try contradiction. destruct Hl as [<-|[]]. unfold cok in H.
    apply andb_true_iff in H as [_ H]. apply orb_true_iff in H as [H|H]; apply String.eqb_eq in H; auto.
  - unfold globals. induction body as [|c body IH]; [reflexivity|]. cbn [flat_map].
    rewrite IH by (intros; apply H; right; assumption). pose proof (H c (or_introl eq_refl)) as Hc.
    destruct c; try reflexivity. unfold cok in Hc. rewrite andb_false_r in Hc. discriminate.
  - intros c Hc. specialize (H c Hc). unfold cok in H. apply andb_true_iff in H as [H _]. apply andb_true_iff in H as [H _]. exact H.
Qed.

(* every instruction is 4 bytes: the routine is shorter than the reach of the narrowest branch form *)
Lemma code_bytes_le cs : (code_bytes cs <= 4 * Z.of_N (AxSize.len cs))%Z.
Proof.
  unfold code_bytes, AxSize.len.
  assert (G : forall l a, (fold_left (fun a c => a + isz c) l a <= a + 4 * Z.of_nat (List.length l))%Z).
  { induction l as [|c l IH]; intros a; cbn [fold_left List.length]; [lia|]. specialize (IH (a + isz c)%Z).
    assert (isz c <= 4)%Z by (destruct c; cbn; lia). lia. }
  specialize (G cs 0%Z). lia.
Qed.
Lemma branches_near cs : (AxSize.len cs < A64_REACH)%N -> branches_in_range cs = None.
Proof.
  intros H. unfold branches_in_range. pose proof (code_bytes_le cs) as B. unfold A64_REACH in H.
  destruct (Z.ltb_spec (code_bytes cs) 1048572); [reflexivity|lia].
Qed.

Lemma asm_wf_intro body :
  W body ->
  NoDup (LabelGen.defs all_defs (preamble ++ body)) ->
  incl (LabelGen.refs referenced (preamble ++ body)) (LabelGen.defs all_defs (preamble ++ body)) ->
  ~ In "print_i64" (LabelGen.defs all_defs (preamble ++ body)) ->
  ~ In "println_i64" (LabelGen.defs all_defs (preamble ++ body)) ->
  (AxSize.len (preamble ++ body) < A64_REACH)%N ->
  asm_wf (preamble ++ body) = None.
Proof.
  intros HW ND RF P1 P2 SZ. destruct (W_parts body HW) as (NH & CL & EX & IW).
  set (cs := preamble ++ body) in *.
  assert (DL : forall l, In l (defined_labels cs) <-> In l (LabelGen.defs all_defs cs) /\ is_hash_label l = false).
  { intros l. rewrite defined_labels_filter, filter_In. destruct (is_hash_label l); cbn; intuition discriminate. }
  assert (RB : flat_map referenced cs = flat_map referenced body) by (unfold cs; rewrite flat_map_app; reflexivity).
  assert (CB : calls cs = calls body) by (unfold cs, calls; rewrite flat_map_app; reflexivity).
  assert (GB : globals cs = ["asm_main"]).
  { unfold cs, globals. rewrite flat_map_app. fold (globals body). rewrite EX. reflexivity. }
  unfold asm_wf.
  rewrite first_dup_NoDup by (rewrite defined_labels_filter; apply NoDup_filter; exact ND).
  rewrite find_none_intro.
  2:{ intros l Hl. apply negb_false_iff. apply mem_str_In. apply DL. split.
      - apply RF. exact Hl.
      - apply NH. rewrite <- RB. exact Hl. }
  rewrite find_none_intro.
  2:{ intros l Hl. rewrite GB in Hl. destruct Hl as [<-|[]]. apply negb_false_iff. apply mem_str_In. apply DL.
      split; [|reflexivity]. unfold cs, LabelGen.defs. cbn. left. reflexivity. }
  rewrite find_none_intro.
  2:{ intros l Hl. rewrite CB in Hl. destruct (mem_str l (defined_labels cs)) eqn:M; [|reflexivity]. exfalso.
      apply mem_str_In in M. apply DL in M as [M _]. destruct (CL l Hl) as [-> | ->]; contradiction. }
  rewrite find_none_intro.
  2:{ intros c Hc. apply negb_false_iff. unfold cs in Hc. apply in_app_or in Hc as [Hc|Hc]; [|exact (IW c Hc)].
      cbn in Hc. repeat (destruct Hc as [<-|Hc]; [reflexivity|]). contradiction. }
  rewrite (branches_near cs SZ). reflexivity.
Qed.

Theorem a64_compile_asm_wf p lc cs n lc' :
  labels_guard p = true -> lin_check_prog p = true ->
  plain_names p = true -> plain_types p = true -> reach_guard_a64 p = true ->
  a64_compile p lc = Ok (cs, n, lc') -> asm_wf cs = None.
Proof.
  intros G1 LIN PN PT RG H. pose proof (X86WfCor.lin_check_calls_guard p LIN) as G2.
  destruct (a64_routine_labels p lc cs n lc' G1 G2 H) as (ND & RF & _).
  pose proof (a64_compile_fine_size p lc cs n lc' (lin_check_prog_sub_wf p LIN) H) as SZ.
  unfold a64_compile, a64_compile_with, into_aarch64_routine in H. rstep H. destruct x as [[is n0] l0]. rinv H. inversion H; subst. clear H.
  match goal with E0 : rbind _ _ = Ok _ |- _ => rename E0 into ES end. rstep ES. rename E0 into E1.
  match type of ES with Ok ?t = Ok ?v => assert (EV : v = t) by congruence; subst v; clear ES end.
  assert (GD : forallb (fun d => lin_check (sigs_of p) (dctx d) (dbody d) && stmt_immP any_lit (dbody d)) (pdefs p) = true).
  { apply forallb_forall. intros d Hd. unfold lin_check_prog in LIN. rewrite forallb_forall in LIN.
    specialize (LIN d Hd). unfold lin_check_def in LIN. rewrite LIN, stmt_imm_any. reflexivity. }
  clear LIN.
  pose proof (X86WfAll.compile_translate _ _ _ _ _ _ E) as E0.
  unfold labels_guard in G1.
  destruct (translate_unique a64_backend all_defs referenced a64_labels_ok _ _ _ _ _ G1 E0) as (_ & _ & I).
  destruct (LabelsA64.nolab_plain _ (nolab_setup_a64 _ _ E1)) as [D0 R0].
  assert (DE : LabelGen.defs all_defs (preamble ++ x ++ is ++ cleanup) = "asm_main" :: LabelGen.defs all_defs is ++ ["cleanup"]).
  { rewrite !(defs_app all_defs), D0. reflexivity. }
  assert (NP : forall s, (forall g, pr g <> s) -> s <> "asm_main" -> s <> "cleanup" ->
                         ~ In s (LabelGen.defs all_defs (preamble ++ x ++ is ++ cleanup))).
  { intros s NG N1 N2 X. rewrite DE in X. destruct X as [X|X]; [congruence|]. apply in_app_or in X as [X|[X|[]]]; [|congruence].
    destruct (I _ X) as (g & Eg & _). symmetry in Eg. exact (NG g Eg). }
  apply asm_wf_intro; [|exact ND|exact RF|apply NP; [exact X86WfAll.print_not_pr|discriminate|discriminate]
                                          |apply NP; [exact X86WfAll.println_not_pr|discriminate|discriminate]|].
  - apply W_app; [exact (W_setup _ _ E1)|]. apply W_app; [|exact W_cleanup].
    eapply (a64_translate_W p PN PT (pdefs p)); [exact GD|auto|exact E0].
  - unfold reach_guard_a64 in RG. apply N.ltb_lt in RG. lia.
Qed.

(* code_small from the size bound of C19 *)
Lemma size_of_le cs : (size_of cs <= 4 * Z.of_N (AxSize.len cs))%Z.
Proof.
  unfold AxSize.len. induction cs as [|c cs IH]; [cbn; lia|]. cbn [size_of List.length].
  assert (isize c <= 4)%Z by (destruct c; cbn; lia). lia.
Qed.
Lemma a64_K_85 : a64_K = 85%N.
Proof. reflexivity. Qed.
Lemma a64_bound_eq p : a64_bound p = (28 + a64_K * cg_bound_defs (pdefs p))%N.
Proof. reflexivity. Qed.
Theorem a64_compile_code_small p lc cs n lc' :
  lin_check_prog p = true -> size_guard p = true ->
  a64_compile p lc = Ok (cs, n, lc') -> code_small cs = true.
Proof.
  intros LIN SG H. pose proof (a64_compile_size p lc cs n lc' (lin_check_prog_sub_wf p LIN) H) as B.
  rewrite a64_bound_eq, a64_K_85 in B. unfold size_guard in SG. apply N.leb_le in SG. unfold SIZE_MAX in SG.
  apply Z.ltb_lt. pose proof (size_of_le cs). unfold CODE_BASE. lia.
Qed.
(* the reach guard alone bounds the code *)
Theorem a64_compile_code_small_reach p lc cs n lc' :
  lin_check_prog p = true -> reach_guard_a64 p = true ->
  a64_compile p lc = Ok (cs, n, lc') -> code_small cs = true.
Proof.
  intros LIN RG H. pose proof (a64_compile_fine_size p lc cs n lc' (lin_check_prog_sub_wf p LIN) H) as B.
  unfold reach_guard_a64 in RG. apply N.ltb_lt in RG. unfold A64_REACH in RG.
  apply Z.ltb_lt. pose proof (size_of_le cs). unfold CODE_BASE. lia.
Qed.
