(* C17 lemmas: the places where the Rust code uses hash-based or insertion-ordered containers
   cannot influence the output.
   linearize: the liveness sets are HashSet<ID>, used ONLY through `contains`; in the model they
       are lists with `mem`; the result of filter_by_set depends on membership alone.
   back end: BTreeMap/BTreeSet keyed by temporaries / bindings; in the model sorted insertion;
       the resulting sequence is independent of the insertion order (permutation invariant). *)
From Coq Require Import List ZArith NArith Bool Permutation Sorted Lia.
From SCC Require Import Lang.AxSyn Model.Linearize Model.Backend.
Import ListNotations.

Lemma strip_ext {X} (k1 k2 : X -> bool) : (forall x, k1 x = k2 x) -> forall l, strip k1 l = strip k2 l.
Proof. intros E l. induction l as [|x r IH]; cbn; [reflexivity|]. rewrite IH, E. reflexivity. Qed.
Lemma fbs_ext {X} (k1 k2 : X -> bool) : (forall x, k1 x = k2 x) -> forall fuel l, fbs k1 fuel l = fbs k2 fuel l.
Proof.
  intros E fuel. induction fuel as [|f IH]; intros l; cbn; [reflexivity|].
  destruct l as [|x rest]; [reflexivity|]. rewrite E, (strip_ext k1 k2 E). destruct (k2 x).
  - now rewrite IH.
  - destruct (unsnoc (strip k2 rest)) as [[mid y]|]; [now rewrite IH|reflexivity].
Qed.
Theorem filter_by_set_membership_only (c : ctx) (s s' : list N) :
  (forall x, mem x s = mem x s') -> filter_by_set c s = filter_by_set c s'.
Proof. intros E. unfold filter_by_set. apply fbs_ext. intros b. unfold keep_in. apply E. Qed.
Corollary filter_by_set_permutation (c : ctx) (s s' : list N) :
  Permutation s s' -> filter_by_set c s = filter_by_set c s'.
Proof.
  intros P. apply filter_by_set_membership_only. intros x. unfold mem.
  apply eq_true_iff_eq. rewrite !existsb_exists. split; intros (y & Hy & E); exists y; split; auto.
  - eapply Permutation_in; eauto.
  - eapply Permutation_in; [apply Permutation_sym|]; eauto.
Qed.

Section Ordered.
Context {K : Type} (cmp : K -> K -> comparison).
(* cmp is a total order: Eq is Leibniz equality, Lt is transitive, Gt is the converse of Lt *)
Hypothesis cmp_eq : forall a b, cmp a b = Datatypes.Eq <-> a = b.
Hypothesis cmp_lt_trans : forall a b c, cmp a b = Datatypes.Lt -> cmp b c = Datatypes.Lt -> cmp a c = Datatypes.Lt.
Hypothesis cmp_antisym : forall a b, cmp a b = Datatypes.Gt <-> cmp b a = Datatypes.Lt.

Definition ltk a b := cmp a b = Datatypes.Lt.
Lemma set_insert_in k s x : In x (set_insert cmp k s) <-> k = x \/ In x s.
Proof.
  induction s as [|y r IH]; cbn; [tauto|]. destruct (cmp k y) eqn:C; cbn.
  - apply cmp_eq in C; subst. tauto.
  - tauto.
  - rewrite IH. tauto.
Qed.
Lemma set_insert_sorted k s : StronglySorted ltk s -> StronglySorted ltk (set_insert cmp k s).
Proof.
  induction 1 as [|y r Sr IH Hy]; cbn; [repeat constructor|].
  destruct (cmp k y) eqn:C.
  - constructor; auto.
  - constructor; [constructor; auto|]. constructor; [exact C|].
    rewrite Forall_forall in *. intros z Hz. eapply cmp_lt_trans; [exact C|]. now apply Hy.
  - constructor; [exact IH|]. rewrite Forall_forall in *. intros z Hz.
    apply set_insert_in in Hz as [<-|Hz]; [now apply cmp_antisym|now apply Hy].
Qed.
Lemma set_of_list_spec l :
  StronglySorted ltk (set_of_list cmp l) /\ (forall x, In x (set_of_list cmp l) <-> In x l).
Proof.
  unfold set_of_list.
  assert (G : forall acc, StronglySorted ltk acc ->
            StronglySorted ltk (fold_left (fun s k => set_insert cmp k s) l acc) /\
            (forall x, In x (fold_left (fun s k => set_insert cmp k s) l acc) <-> In x l \/ In x acc)).
  { induction l as [|k l IH]; intros acc Sa; cbn; [split; [exact Sa|tauto]|].
    destruct (IH (set_insert cmp k acc) (set_insert_sorted k acc Sa)) as (S1 & M1). split; [exact S1|].
    intros x. rewrite M1, set_insert_in. tauto. }
  destruct (G [] (SSorted_nil _)) as (S1 & M1). split; [exact S1|]. intros x. rewrite M1. cbn. tauto.
Qed.
Lemma ltk_irrefl a : ~ ltk a a.
Proof. unfold ltk. intros H. assert (cmp a a = Datatypes.Eq) by now apply cmp_eq. congruence. Qed.
Lemma sorted_unique l1 : forall l2,
  StronglySorted ltk l1 -> StronglySorted ltk l2 -> (forall x, In x l1 <-> In x l2) -> l1 = l2.
Proof.
  induction l1 as [|a r1 IH]; intros l2 S1 S2 M.
  - destruct l2 as [|b r2]; [reflexivity|]. exfalso. apply (M b). now left.
  - destruct l2 as [|b r2]; [exfalso; apply (M a); now left|].
    inversion S1 as [|? ? Sr1 Fa]; subst. inversion S2 as [|? ? Sr2 Fb]; subst.
    rewrite Forall_forall in Fa, Fb.
    assert (a = b) as ->.
    { destruct (proj1 (M a) (or_introl eq_refl)) as [E|Hin]; [congruence|].
      destruct (proj2 (M b) (or_introl eq_refl)) as [E|Hin']; [congruence|].
      exfalso. apply (ltk_irrefl a). eapply cmp_lt_trans; [apply Fa; exact Hin'|apply Fb; exact Hin]. }
    f_equal. apply IH; auto. intros x. split; intros Hx.
    + destruct (proj1 (M x) (or_intror Hx)) as [<-|?]; [|assumption]. exfalso. apply (ltk_irrefl b). now apply Fa.
    + destruct (proj2 (M x) (or_intror Hx)) as [<-|?]; [|assumption]. exfalso. apply (ltk_irrefl b). now apply Fb.
Qed.
Theorem set_of_list_order_independent l l' :
  (forall x, In x l <-> In x l') -> set_of_list cmp l = set_of_list cmp l'.
Proof.
  intros M. destruct (set_of_list_spec l) as (S1 & M1), (set_of_list_spec l') as (S2 & M2).
  apply sorted_unique; auto. intros x. rewrite M1, M2. apply M.
Qed.
End Ordered.

(* instance: the derived Ord of the x86-64 `Temporary` (Register n < Spill m) is such an order *)
From SCC Require Import Model.X86.
Lemma xtemp_compare_eq a b : xtemp_compare a b = Datatypes.Eq <-> a = b.
Proof.
  destruct a as [x|x], b as [y|y]; cbn; try (split; [discriminate|congruence]);
    rewrite N.compare_eq_iff; split; congruence.
Qed.
Lemma xtemp_compare_trans a b c :
  xtemp_compare a b = Datatypes.Lt -> xtemp_compare b c = Datatypes.Lt -> xtemp_compare a c = Datatypes.Lt.
Proof.
  destruct a as [x|x], b as [y|y], c as [z|z]; cbn; try congruence; rewrite !N.compare_lt_iff; lia.
Qed.
Lemma xtemp_compare_antisym a b : xtemp_compare a b = Datatypes.Gt <-> xtemp_compare b a = Datatypes.Lt.
Proof.
  destruct a as [x|x], b as [y|y]; cbn; try (split; congruence); rewrite N.compare_gt_iff, N.compare_lt_iff; tauto.
Qed.
Theorem x86_target_sets_order_independent (l l' : list xtemp) :
  (forall x, In x l <-> In x l') -> set_of_list xtemp_compare l = set_of_list xtemp_compare l'.
Proof.
  apply set_of_list_order_independent; [apply xtemp_compare_eq|apply xtemp_compare_trans|apply xtemp_compare_antisym].
Qed.
