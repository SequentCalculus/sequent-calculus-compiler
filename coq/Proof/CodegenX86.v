(* C12: the x86-64 back end satisfies [capacity_ok] with
   P = positions_x86 = 267 temporaries, hence x86_compile returns Ok on every linear program within
   capacity: "Out of temporaries" and "too many arguments for main" are the only reachable panics. *)
From Coq Require Import List ZArith NArith String Bool Lia.
From SCC Require Import Base.Sexp Lang.AxSyn Model.ParMoves Model.Backend Model.X86 Model.LinCheck Model.Capacity.
From SCC Require Import Proof.SubstGraph Proof.CodegenTotal.
Import ListNotations.
Open Scope list_scope.

Lemma positions_x86_val : positions_x86 = 267%N.
Proof. reflexivity. Qed.
Lemma K_x86_val : K_x86 = 132%nat.
Proof. reflexivity. Qed.

Lemma x86_temp_ok p : (p < positions_x86)%N -> okr (temporary_from_position p).
Proof.
  rewrite positions_x86_val. intros H. unfold temporary_from_position.
  change RESERVED with 4%N. change REGISTER_NUM with 16%N. change RESERVED_SPILLS with 1%N. change SPILL_NUM with 256%N.
  cbv zeta. destruct (N.ltb_spec (p + 4) 16); [apply okr_Ok|].
  destruct (N.ltb_spec (p + 4 - 16 + 1) 256); [apply okr_Ok|]. lia.
Qed.
(* the bound is exact: the first position that fails *)
Lemma x86_temp_limit : temporary_from_position positions_x86 = Err "Out of temporaries".
Proof. reflexivity. Qed.

Lemma x_fresh_ok n (c : ctx) : (2 * N.of_nat (List.length c) + 2 <= positions_x86)%N -> okr (x_fresh n c).
Proof. intros H. unfold x_fresh. apply x86_temp_ok. destruct n; unfold tnum_n; lia. Qed.

Lemma store_field_ok n c block offset :
  (2 * N.of_nat (List.length c) + 2 <= positions_x86)%N -> okr (store_field n c block offset).
Proof. intros H. unfold store_field. okb; [apply x_fresh_ok; exact H|apply okr_Ok]. Qed.
Lemma load_field_ok n c block offset :
  (2 * N.of_nat (List.length c) + 2 <= positions_x86)%N -> okr (load_field n c block offset).
Proof. intros H. unfold load_field. okb; [apply x_fresh_ok; exact H|apply okr_Ok]. Qed.
Lemma store_value_ok b c block offset :
  (2 * N.of_nat (List.length c) + 2 <= positions_x86)%N -> okr (store_value b c block offset).
Proof.
  intros H. unfold store_value. okb; [apply store_field_ok; exact H|].
  destruct (bchi b); try apply okr_Ok; (okb; [apply store_field_ok; exact H|apply okr_Ok]).
Qed.
Lemma load_value_ok b c block offset m lc :
  (2 * N.of_nat (List.length c) + 2 <= positions_x86)%N -> okr (load_value b c block offset m lc).
Proof.
  intros H. unfold load_value. okb; [apply load_field_ok; exact H|].
  destruct (bchi b); try apply okr_Ok;
    (okb; [apply load_field_ok; exact H|]; okb; [apply x_fresh_ok; exact H|];
     destruct m; [apply okr_Ok|destruct (x_share_block_n _ 1 lc); apply okr_Ok]).
Qed.

Lemma store_values_ok block : forall l remaining ff,
  (2 * N.of_nat (List.length remaining + List.length l) + 2 <= positions_x86)%N ->
  okr (store_values l remaining block ff).
Proof.
  induction l as [|b l IH]; intros remaining ff H; cbn [store_values]; [apply okr_Ok|].
  cbn [List.length] in H. okb.
  - apply store_value_ok. rewrite app_length, rev_length. lia.
  - okb; [apply IH; lia|apply okr_Ok].
Qed.
Lemma load_values_ok block m : forall l existing ff lc,
  (2 * N.of_nat (List.length existing + List.length l) + 2 <= positions_x86)%N ->
  okr (load_values l existing block ff m lc).
Proof.
  induction l as [|b l IH]; intros existing ff lc H; cbn [load_values]; [apply okr_Ok|].
  cbn [List.length] in H. okb.
  - apply load_value_ok. rewrite app_length, rev_length. lia.
  - destruct x as [c1 lc1]. okb; [apply IH; lia|]. destruct x as [c2 lc2]. apply okr_Ok.
Qed.

Lemma store_fields_ok : forall fuel to_store remaining bp lc,
  (List.length to_store < fuel)%nat ->
  (2 * N.of_nat (List.length remaining + List.length to_store) + 2 <= positions_x86)%N ->
  okr (store_fields fuel to_store remaining bp lc).
Proof.
  induction fuel as [|fuel IH]; intros to_store remaining bp lc HF H; [lia|].
  cbn [store_fields]. destruct to_store as [|b0 l0] eqn:ETS.
  - destruct bp; [|apply okr_Ok]. okb; [apply x_fresh_ok; cbn [List.length] in H; lia|apply okr_Ok].
  - rewrite <- ETS in *. assert (NE : to_store <> []) by (rewrite ETS; discriminate).
    clear ETS. cbv zeta.
    set (k := N.to_nat (if N.leb (N.of_nat (List.length to_store)) (FIELDS_PER_BLOCK - bp_n bp)
                        then 0%N else (N.of_nat (List.length to_store) - (FIELDS_PER_BLOCK - bp_n bp))%N)) in *.
    destruct (split_rest to_store (FIELDS_PER_BLOCK - bp_n bp) k NE ltac:(destruct bp; reflexivity) eq_refl) as [RS FS].
    okb. { destruct bp; [apply okr_Ok|]. apply store_field_ok. rewrite app_length. exact H. }
    okb. { apply store_values_ok. rewrite rev_length, app_length. lia. }
    okb. { apply x_fresh_ok. rewrite app_length. lia. }
    destruct (acquire_block x1 lc) as [c2 lc2].
    okb; [apply IH; lia|]. destruct x2 as [c3 lc3]. apply okr_Ok.
Qed.

Lemma load_fields_ok : forall fuel to_load existing bp m freed lc,
  (List.length to_load < fuel)%nat ->
  (2 * N.of_nat (List.length existing + List.length to_load) + 2 <= positions_x86)%N ->
  okr (load_fields fuel to_load existing bp m freed lc).
Proof.
  induction fuel as [|fuel IH]; intros to_load existing bp m freed lc HF H; [lia|].
  cbn [load_fields]. destruct to_load as [|b0 l0] eqn:ETS; [apply okr_Ok|].
  rewrite <- ETS in *. assert (NE : to_load <> []) by (rewrite ETS; discriminate).
  clear ETS. cbv zeta.
  set (k := N.to_nat (if N.leb (N.of_nat (List.length to_load)) (FIELDS_PER_BLOCK - bp_n bp)
                      then 0%N else (N.of_nat (List.length to_load) - (FIELDS_PER_BLOCK - bp_n bp))%N)) in *.
  destruct (split_rest to_load (FIELDS_PER_BLOCK - bp_n bp) k NE ltac:(destruct bp; reflexivity) eq_refl) as [RS FS].
  okb; [apply IH; lia|]. destruct x as [[c0 freed0] lc0].
  okb. { apply x_fresh_ok. rewrite app_length. lia. }
  assert (LF : forall r, okr (match bp with
                              | Other => load_field Fst (existing ++ to_load) r (FIELDS_PER_BLOCK - 1)
                              | Last => Ok []
                              end)).
  { intros r. destruct bp; [apply okr_Ok|]. apply load_field_ok. rewrite app_length. exact H. }
  assert (LV : forall r lc', okr (load_values (rev (skipn k to_load)) (existing ++ firstn k to_load) r
                                              (FIELDS_PER_BLOCK - bp_n bp) m lc')).
  { intros r lc'. apply load_values_ok. rewrite rev_length, app_length. lia. }
  destruct x as [mr|mp].
  - okb; [apply LF|]. okb; [apply LV|]. destruct x0 as [c3 lc3]. apply okr_Ok.
  - okb; [apply LF|]. okb; [apply LV|]. destruct x0 as [c3 lc3]. apply okr_Ok.
Qed.

Lemma x_store_ok args rest lc :
  (2 * N.of_nat (List.length rest + List.length args) + 2 <= positions_x86)%N -> okr (x_store args rest lc).
Proof. intros H. unfold x_store. apply store_fields_ok; [lia|exact H]. Qed.

Lemma load_register_ok block to_load existing lc :
  (2 * N.of_nat (List.length existing + List.length to_load) + 2 <= positions_x86)%N ->
  okr (load_register block to_load existing lc).
Proof.
  intros H. unfold load_register.
  okb; [apply load_fields_ok; [lia|exact H]|]. destruct x as [[tb f1] lc1].
  okb; [apply load_fields_ok; [lia|exact H]|]. destruct x as [[eb f2] lc2]. apply okr_Ok.
Qed.
Lemma x_load_ok to_load existing lc :
  (2 * N.of_nat (List.length existing + List.length to_load) + 2 <= positions_x86)%N -> okr (x_load to_load existing lc).
Proof.
  intros H. unfold x_load. destruct to_load as [|b0 l0] eqn:E; [apply okr_Ok|]. rewrite <- E in *.
  okb; [apply x_fresh_ok; lia|]. destruct x as [r|p].
  - apply load_register_ok. exact H.
  - okb; [apply load_register_ok; exact H|apply okr_Ok].
Qed.

Theorem x86_capacity_ok mark : capacity_ok (x86_backend_with mark) positions_x86.
Proof.
  split; cbn [x86_backend_with b_temporary_from_position b_store b_load].
  - exact x86_temp_ok.
  - exact x_store_ok.
  - exact x_load_ok.
Qed.

Lemma move_arguments_ok : forall n, (n <= 5)%nat -> okr (move_arguments n).
Proof.
  induction n as [|n IH]; intros H; cbn [move_arguments]; [apply okr_Ok|].
  destruct (Nat.ltb_spec 5 (S n)); [lia|]. okb; [apply IH; lia|apply okr_Ok].
Qed.

(* THE THEOREM for x86-64: a linear program accepted by lin_check_prog and within capacity is
   compiled without any failure *)
Theorem x86_codegen_total (p : prog) (lc : N) :
  lin_check_prog p = true -> within_capacity_x86 p = true ->
  exists code lc', x86_compile p lc = Ok (code, main_arity p, lc').
Proof.
  intros L W. unfold within_capacity_x86 in W.
  apply andb_true_iff in W as [W A]. apply andb_true_iff in W as [D C]. apply Nat.leb_le in A.
  destruct (compile_total x86_backend positions_x86 x86_backend_ok (x86_capacity_ok _) K_x86
              ltac:(rewrite positions_x86_val, K_x86_val; lia) p lc L D C) as (code & lc' & E).
  unfold x86_compile, x86_compile_with. fold x86_backend. rewrite E. cbn [rbind].
  unfold into_x86_64_routine, setup.
  destruct (move_arguments_ok (main_arity p) A) as [ma ->]. cbn [rbind]. eauto.
Qed.
Print Assumptions x86_codegen_total.
