(* The model of focus on well-formed input with pairwise distinct binders (statements [FBt], [FFs], ...
   of Proof/FocusLemmas.v): one lemma per syntactic form and per arm of Cut::focus, assembled by the
   mutual induction principle.  Each call of an induction hypothesis lists its side conditions in the
   order of the hypothesis: wf, okids, ids_le, scoped. *)
From Coq Require Import List ZArith NArith String Bool Lia.
From SCC Require Import Base.Sexp Lang.CoreSyn Model.Backend Model.Uniquify Model.Focus Model.FocusCheck
     Proof.CoreInd Proof.SubstProof Proof.CheckLemmas Proof.UniquifyProof Proof.FocusKont Proof.FocusLemmas.
Import ListNotations.
Open Scope list_scope.
Open Scope N_scope.

Lemma wf_cns_not_op : forall t, wf_term CCns t = true -> is_op t = false.
Proof. destruct t; simpl; auto. Qed.
Lemma not_xtor_intro : forall t, is_xtor t = false -> not_xtor t.
Proof. destruct t; simpl; intros; try exact I; discriminate. Qed.
Lemma head_prd_intro : forall t, is_xtor t = false -> is_op t = false -> head_prd t.
Proof. destruct t; simpl; intros; try exact I; discriminate. Qed.

Lemma spec_xvar : forall c0 v ty, Pt (CXVar c0 v ty).
Proof.
  intros c0 v ty. split; [|split; [|exact I]].
  - intros c k m T Rk env W (_ & _ & LE) Hi S K. simpl in *.
    apply K; [lia | apply sub_nz_refl |]. split; simpl; [apply N.leb_le in Hi; lia | exact S].
  - intros c m T env W X O (_ & _ & LE) Hi S. simpl in *.
    exists (FsXVar c0 v ty), m. split; [reflexivity|]. split; [lia|]. split; [apply bspec_nil|].
    simpl. split; [|exact S]. apply N.leb_le in Hi. apply N.leb_le. lia.
Qed.

Lemma spec_lit : forall n, Pt (CLit n).
Proof.
  intros n. split; [|split; [|exact I]].
  - intros c k m T Rk env W OK Hi S K. destruct c; [|discriminate]. rewrite bind_lit.
    apply fpost_fresh_r with (T := T); auto.
    eapply kpost_fresh; [exact K | lia | apply sub_nz_refl].
  - intros c m T env W X O OK Hi S. simpl in *. destruct c; [|discriminate].
    exists (FsLit n), m. split; [reflexivity|]. split; [lia|]. split; [apply bspec_nil|]. auto.
Qed.

(* two operands bound one after the other: Op::bind, the (Op, consumer) arm of Cut::focus, IfC::focus *)
Lemma bind2_spec : forall a b, FBt a -> FBt b -> forall (k2 : cbinding -> kont) m T Rk env,
  wf_term CPrd a = true -> wf_term CPrd b = true -> okids T m (binder_ids_term a ++ binder_ids_term b ++ Rk) ->
  ids_le_term T a = true -> ids_le_term T b = true -> scoped_term env a = true -> scoped_term env b = true ->
  (forall b1 b2 m2 env2, m <= m2 -> sub_nz env env2 -> good_b m2 env2 b1 -> good_b m2 env2 b2 ->
     fpost Rk env2 m2 (k2 b1 b2 m2)) ->
  fpost (binder_ids_term a ++ binder_ids_term b ++ Rk) env m
    (bind_term CPrd a (fun b1 ma => bind_term CPrd b (k2 b1) ma) m).
Proof.
  intros a b IHa IHb k2 m T Rk env Wa Wb OK Ia Ib Sa Sb K.
  apply IHa with (T := T); auto.
  intros b1 m1 env1 L1 S1 G1.
  apply IHb with (T := T); [exact Wb | exact (okids_le (okids_r OK) L1) | exact Ib | eapply scoped_term_mono; eauto |].
  intros b2 m2 env2 L2 S2 G2.
  apply K; [lia | eapply sub_nz_trans; eauto | eapply good_b_mono; eauto | exact G2].
Qed.

Lemma spec_op : forall a o b, Pt a -> Pt b -> Pt (COp a o b).
Proof.
  intros a o b (IHa & _) (IHb & _). split; [|split; [|simpl; split; auto]].
  - intros c k m T Rk env W OK Hi S K. simpl in W, OK, Hi, S. destruct c; [|discriminate]. bsplit.
    rewrite bind_op. unfold opL_k. cbn [binder_ids_term]. rewrite <- app_assoc in *.
    apply (bind2_spec a b IHa IHb (fun b1 => opR_k b1 o k)) with (T := T); auto.
    intros b1 b2 m2 env2 L2 S2 G1 G2. unfold opR_k, fresh_var, fresh_identifier.
    destruct (good_op m2 env2 b1 b2 o G1 G2) as [Gi Gs].
    apply fpost_fresh_r with (T := T); [|exact (okids_le (okids_r (okids_r OK)) L2) | reflexivity | exact Gi | exact Gs].
    eapply kpost_fresh; eauto.
  - intros c m T env W X O. discriminate.
Qed.

Lemma spec_mu : forall c0 v s ty, FFs s -> Pt (CMu c0 v s ty).
Proof.
  intros c0 v s ty IHs. split; [|split; [|exact I]].
  - intros c k m T Rk env W OK Hi S K. simpl in W, OK, Hi, S. bsplit.
    match goal with H : N.leb _ _ = true |- _ => apply N.leb_le in H end.
    assert (OKs : okids T m (binder_ids_stmt s)) by exact (okids_l (okids_tl OK)).
    destruct OK as (ND & ML & LE). destruct c.
    + (* Mu<Prd>: fresh, focus, k *)
      rewrite bind_mu_prd.
      destruct (IHs (m + 1) T (cid_id v :: env)) as (s' & m2 & E2 & L2 & B2 & I2 & S2);
        [assumption | apply (okids_le OKs); lia | assumption | assumption |].
      rewrite E2; simpl.
      destruct (K (mkcb ("x"%string, m + 1) CPrd ty) m2 ((m + 1) :: env)) as (sk & mk & Ek & Lk & Bk & Ik & Sk);
        [lia | apply sub_nz_skip, sub_nz_refl | eapply good_b_mono; [apply good_fresh | lia | apply sub_nz_refl] |].
      rewrite Ek; simpl. apply post_ok; simpl; [lia | bspec_tac | |]; bsplit; auto; try (apply N.leb_le; lia).
      eapply fs_ids_le_stmt_mono; [|eassumption]; lia.
    + (* Mu<Cns>: fresh, k, focus *)
      rewrite bind_mu_cns.
      destruct (kpost_fresh m Rk env k m env "a"%string CCns ty K (N.le_refl m) (sub_nz_refl env))
        as (sk & mk & Ek & Lk & Bk & Ik & Sk).
      rewrite Ek; simpl.
      destruct (IHs mk T (cid_id v :: env)) as (s' & m2 & E2 & L2 & B2 & I2 & S2);
        [assumption | apply (okids_le OKs); lia | assumption | assumption |].
      rewrite E2; simpl. apply post_ok; simpl; [lia | bspec_tac | |]; bsplit; auto; try (apply N.leb_le; lia).
      eapply fs_ids_le_stmt_mono; [|eassumption]; lia.
  - intros c m T env W X O OK Hi S. simpl in W, OK, Hi, S. bsplit.
    match goal with H : N.leb _ _ = true |- _ => apply N.leb_le in H end.
    rewrite focus_term_mu.
    destruct (IHs m T (cid_id v :: env)) as (s' & m2 & E2 & L2 & B2 & I2 & S2);
      [assumption | exact (okids_tl OK) | assumption | assumption |].
    rewrite E2; simpl. destruct OK as (ND & ML & LE). apply post_ok; simpl; [lia | eapply bspec_cons_keep with (T := T); eauto; ndsolve | |]; bsplit; auto. apply N.leb_le; lia.
Qed.

Lemma spec_xtor : forall c0 x args ty, Forall FBa args -> Pt (CXtor c0 x args ty).
Proof.
  intros c0 x args ty IHargs. split; [|split; [|exact IHargs]].
  - intros c k m T Rk env W OK Hi S K. simpl in W, OK, Hi, S.
    destruct c; [rewrite bind_xtor_prd | rewrite bind_xtor_cns];
      (apply bind_many_spec with (T := T); auto; intros bs m1 env1 L1 S1 G1;
       destruct (good_ids _ _ _ G1) as [G1a G1b]; unfold xtorP_kv, xtorK_kv, fresh_var, fresh_covar, fresh_identifier;
       pose proof (okids_le (okids_r OK) L1) as OK1).
    + apply fpost_fresh_r with (T := T); [|exact OK1 | reflexivity | exact G1a | exact G1b].
      eapply kpost_fresh; eauto.
    + apply fpost_fresh_l with (T := T); [|exact OK1 | reflexivity | exact G1a | exact G1b].
      eapply kpost_fresh; eauto.
  - intros c m T env W X O. discriminate.
Qed.

Lemma spec_xcase : forall c0 cls ty, Forall FFc cls -> Pt (CXCase c0 cls ty).
Proof.
  intros c0 cls ty IHcls. split; [|split; [|exact I]].
  - intros c k m T Rk env W OK Hi S K. simpl in W, OK, Hi, S.
    assert (HK : forall base ch, fpost Rk ((m + 1) :: env) (m + 1) (k (mkcb (base, m + 1) ch ty) (m + 1)))
      by (intros; eapply kpost_fresh; [exact K | lia | apply sub_nz_refl]).
    assert (HC : forall mk, m <= mk -> cspost (flat_map binder_ids_clause cls) env mk (maprs focus_clause cls mk))
      by (intros mk Lm; apply focus_clauses_spec with (T := T);
          [assumption | assumption | exact (okids_le (okids_l OK) Lm) | assumption | assumption]).
    destruct OK as (ND & ML & LE).
    (* both chiralities: fresh, k, focus; they differ in the name of the fresh variable and the sides of the cut *)
    destruct c; [rewrite bind_xcase_prd; destruct (HK "x"%string CPrd) as (sk & mk & Ek & Lk & Bk & Ik & Sk)
                | rewrite bind_xcase_cns; destruct (HK "a"%string CCns) as (sk & mk & Ek & Lk & Bk & Ik & Sk)].
    all: rewrite Ek; simpl.
    all: destruct (HC mk) as (cls' & m3 & E3 & L3 & B3 & I3 & S3); [lia|]; rewrite E3; simpl.
    all: apply post_ok; simpl; [lia | bspec_tac | |]; bsplit; auto; try (apply N.leb_le; lia).
    all: eapply fs_ids_le_stmt_mono; [|eassumption]; lia.
  - intros c m T env W X O OK Hi S. simpl in W, OK, Hi, S. rewrite focus_term_xcase.
    destruct (focus_clauses_spec cls IHcls m T env) as (cls' & m3 & E3 & L3 & B3 & I3 & S3); auto.
    rewrite E3; simpl. eexists _, _. split; [reflexivity|]. split; [lia|]. simpl. auto.
Qed.

Lemma spec_clause : forall c0 x ctx body, FFs body -> FFc (CClause c0 x ctx body).
Proof.
  intros c0 x ctx body IHb m T env W OK Hi S. simpl in W, OK, Hi, S. bsplit.
  rewrite focus_clause_eq.
  destruct (IHb m T (cids ctx ++ env)) as (b' & m2 & E2 & L2 & B2 & I2 & S2);
    [assumption | exact (okids_r OK) | assumption | assumption |].
  rewrite E2; simpl. destruct OK as (ND & ML & LE). apply post_ok; simpl; [lia | bspec_tac | |]; bsplit; auto.
  match goal with H : forallb _ (cids ctx) = true |- _ => apply forallb_leb in H; apply forallb_leb; eapply mem_le_mono; [exact H | lia] end.
Qed.

(* Cut::focus, the four arms *)
Definition cut_pre (p q : cterm) (m T : N) (env : list N) : Prop :=
  Pt p /\ Pt q /\ wf_term CPrd p = true /\ wf_term CCns q = true /\ okids T m (binder_ids_term p ++ binder_ids_term q) /\
  ids_le_term T p = true /\ ids_le_term T q = true /\ scoped_term env p = true /\ scoped_term env q = true.
Notation cut_post p ty q m env := (fpost (binder_ids_term p ++ binder_ids_term q) env m (focus_stmt (CCut p ty q) m)).

(* a plain term focused at a later counter, in a larger scope *)
Lemma focus_later : forall T m env c t, Pt t -> wf_term c t = true -> is_xtor t = false -> is_op t = false ->
  okids T m (binder_ids_term t) -> ids_le_term T t = true -> scoped_term env t = true ->
  forall m1 env1, m <= m1 -> sub_nz env env1 -> tpost (binder_ids_term t) env1 m1 (focus_term c t m1).
Proof.
  intros T m env c t (_ & F & _) W X O OK Hi S m1 env1 L1 S1.
  apply F with (T := T); auto; [exact (okids_le OK L1) | eapply scoped_term_mono; eauto].
Qed.

Lemma cut_xtor_l : forall pc px pargs pty ty q m T env, cut_pre (CXtor pc px pargs pty) q m T env ->
  is_xtor q = false -> is_op q = false -> cut_post (CXtor pc px pargs pty) ty q m env.
Proof.
  intros pc px pargs pty ty q m T env (Hp & Hq & Wp & Wq & OK & Ip & Iq & Sp & Sq) Xq Oq.
  destruct Hp as (_ & _ & IHargs). simpl in * |-.
  rewrite focus_cut_xtorP. cbn [binder_ids_term].
  apply bind_many_spec with (T := T); auto.
  intros bs m1 env1 L1 S1 G1. unfold cutP_kv.
  destruct (focus_later T m env CCns q Hq Wq Xq Oq (okids_r OK) Iq Sq m1 env1 L1 S1) as (q' & m2 & E2 & L2 & B2 & I2 & S2).
  rewrite E2; simpl. eexists _, _. split; [reflexivity|]. split; [lia|]. simpl.
  split; [exact B2|]. destruct (good_ids _ _ _ G1) as [G1a G1b]. split; bsplit; auto.
  eapply forallb_impl; [|exact G1a]. intros i _ Hi. apply N.leb_le in Hi. apply N.leb_le. lia.
Qed.

Lemma cut_xtor_r : forall p ty qc qx qargs qty m T env, cut_pre p (CXtor qc qx qargs qty) m T env ->
  is_xtor p = false -> is_op p = false -> cut_post p ty (CXtor qc qx qargs qty) m env.
Proof.
  intros p ty qc qx qargs qty m T env (Hp & Hq & Wp & Wq & OK & Ip & Iq & Sp & Sq) Xp Op.
  destruct Hq as (_ & _ & IHargs). simpl in * |-.
  rewrite focus_cut_xtorK by (apply not_xtor_intro; exact Xp). cbn [binder_ids_term].
  eapply fpost_weaken with (R := flat_map binder_ids_arg qargs ++ binder_ids_term p).
  2:{ intros x Hx. apply in_app_or in Hx. apply in_or_app. tauto. }
  apply bind_many_spec with (T := T); auto; [exact (okids_swap OK)|].
  intros bs m1 env1 L1 S1 G1. unfold cutK_kv.
  destruct (focus_later T m env CPrd p Hp Wp Xp Op (okids_l OK) Ip Sp m1 env1 L1 S1) as (p' & m2 & E2 & L2 & B2 & I2 & S2).
  rewrite E2; simpl. eexists _, _. split; [reflexivity|]. split; [lia|]. simpl. rewrite app_nil_r.
  split; [exact B2|]. destruct (good_ids _ _ _ G1) as [G1a G1b]. split; bsplit; auto.
  eapply forallb_impl; [|exact G1a]. intros i _ Hi. apply N.leb_le in Hi. apply N.leb_le. lia.
Qed.

Lemma cut_op : forall a o b ty q m T env, cut_pre (COp a o b) q m T env ->
  is_xtor q = false -> is_op q = false -> cut_post (COp a o b) ty q m env.
Proof.
  intros a o b ty q m T env (Hp & Hq & Wp & Wq & OK & Ip & Iq & Sp & Sq) Xq Oq.
  destruct Hp as (_ & _ & IHa & IHb). simpl in * |-. bsplit.
  rewrite focus_cut_op by (apply not_xtor_intro; exact Xq). unfold cutopL_k. cbn [binder_ids_term]. rewrite <- app_assoc in *.
  apply (bind2_spec a b IHa IHb (fun b1 => cutopR_k b1 o ty q)) with (T := T); auto.
  intros b1 b2 m2 env2 L2 S2 G1 G2. unfold cutopR_k.
  destruct (focus_later T m env CCns q Hq Wq Xq Oq (okids_r (okids_r OK)) Iq Sq m2 env2 L2 S2)
    as (q' & m3 & E3 & L3 & B3 & I3 & S3).
  rewrite E3; simpl. eexists _, _. split; [reflexivity|]. split; [lia|]. simpl.
  split; [exact B3|]. destruct G1 as [G1a G1b], G2 as [G2a G2b].
  split; bsplit; auto; apply N.leb_le; lia.
Qed.

Lemma cut_plain : forall p ty q m T env, cut_pre p q m T env ->
  is_xtor p = false -> is_op p = false -> is_xtor q = false -> is_op q = false -> cut_post p ty q m env.
Proof.
  intros p ty q m T env (Hp & Hq & Wp & Wq & OK & Ip & Iq & Sp & Sq) Xp Op Xq Oq.
  rewrite focus_cut_heads by (apply head_prd_intro || apply not_xtor_intro; assumption).
  destruct (focus_later T m env CPrd p Hp Wp Xp Op (okids_l OK) Ip Sp m env (N.le_refl _) (sub_nz_refl _))
    as (p' & m1 & E1 & L1 & B1 & I1 & S1).
  rewrite E1; simpl.
  destruct (focus_later T m env CCns q Hq Wq Xq Oq (okids_r OK) Iq Sq m1 env L1 (sub_nz_refl _))
    as (q' & m2 & E2 & L2 & B2 & I2 & S2).
  rewrite E2; simpl. destruct OK as (ND & ML & LE). apply post_ok; simpl; [lia | eapply bspec_app; eauto | |]; bsplit; auto.
  eapply fs_ids_le_term_mono; [|eassumption]; lia.
Qed.

Lemma spec_cut : forall p ty q, Pt p -> Pt q -> FFs (CCut p ty q).
Proof.
  intros p ty q Hp Hq m T env W OK Hi S. simpl in W, OK, Hi, S. bsplit.
  match goal with H : negb (is_xtor p && is_xtor q) = true |- _ => rename H into NXX end.
  match goal with H : negb (is_op p && is_xtor q) = true |- _ => rename H into NOX end.
  assert (Oq : is_op q = false) by (apply wf_cns_not_op; assumption).
  destruct (is_xtor p) eqn:Xp.
  { destruct p as [| | | |pc px pargs pty|]; try discriminate.
    destruct (is_xtor q) eqn:Xq; [discriminate|]. apply cut_xtor_l with (T := T); unfold cut_pre; auto 12. }
  destruct (is_op p) eqn:Op.
  { destruct p as [| |a o b| | |]; try discriminate.
    destruct (is_xtor q) eqn:Xq; [discriminate|]. apply cut_op with (T := T); unfold cut_pre; auto 12. }
  destruct (is_xtor q) eqn:Xq.
  { destruct q as [| | | |qc qx qargs qty|]; try discriminate. apply cut_xtor_r with (T := T); unfold cut_pre; auto 12. }
  apply cut_plain with (T := T); unfold cut_pre; auto 12.
Qed.

(* then- and else-branch focused one after the other, in a continuation *)
Lemma branches_spec : forall t e, FFs t -> FFs e -> forall m T env so v vo,
  wf_stmt t = true -> wf_stmt e = true -> okids T m (binder_ids_stmt t ++ binder_ids_stmt e) ->
  ids_le_stmt T t = true -> ids_le_stmt T e = true -> scoped_stmt env t = true -> scoped_stmt env e = true ->
  cid_id v <= m -> occ_sc env v = true ->
  match vo with Some v' => cid_id v' <= m /\ occ_sc env v' = true | None => True end ->
  fpost (binder_ids_stmt t ++ binder_ids_stmt e) env m
    (dor (t', m1) <- focus_stmt t m; dor (e', m2) <- focus_stmt e m1; Ok (FsIfC so v vo t' e', m2)).
Proof.
  intros t e IHt IHe m T env so v vo Wt We OK It Ie St Se Gi Gs Go.
  destruct (IHt m T env) as (t' & m3 & E3 & L3 & B3 & I3 & S3); [assumption | exact (okids_l OK) | assumption | assumption |].
  rewrite E3; simpl.
  destruct (IHe m3 T env) as (e' & m4 & E4 & L4 & B4 & I4 & S4);
    [assumption | exact (okids_le (okids_r OK) L3) | assumption | assumption |].
  rewrite E4; simpl. destruct OK as (ND & ML & LE). apply post_ok; simpl; [lia | eapply bspec_app; eauto | |]; bsplit; auto; try (apply N.leb_le; lia).
  - destruct vo as [v'|]; [apply N.leb_le; lia | reflexivity].
  - eapply fs_ids_le_stmt_mono; [|eassumption]; lia.
  - destruct vo as [v'|]; [apply Go | reflexivity].
Qed.

Lemma spec_ifc : forall so a bo t e, Pt a -> match bo with Some b' => Pt b' | None => True end -> FFs t -> FFs e ->
  FFs (CIfC so a bo t e).
Proof.
  intros so a bo t e (IHa & _) IHb IHt IHe m T env W OK Hi S. simpl in W, OK, Hi, S. bsplit.
  rewrite focus_ifc. destruct bo as [b0|].
  - destruct IHb as (IHb & _).
    apply (bind2_spec a b0 IHa IHb (fun b1 => if2_k so b1 t e)) with (T := T); auto.
    intros b1 b2 m2 env2 L2 S2 [G1a G1b] [G2a G2b]. unfold if2_k.
    apply branches_spec with (T := T) (vo := Some (cbvar b2));
      [exact IHt | exact IHe | assumption | assumption | exact (okids_le (okids_r (okids_r OK)) L2)
      | assumption | assumption | eapply scoped_stmt_mono; eassumption | eapply scoped_stmt_mono; eassumption
      | exact G1a | exact G1b | split; assumption].
  - simpl in *. apply IHa with (T := T); auto.
    intros b1 m1 env1 L1 S1 [G1a G1b]. unfold if1_k.
    apply branches_spec with (T := T) (vo := None);
      [exact IHt | exact IHe | assumption | assumption | exact (okids_le (okids_r OK) L1)
      | assumption | assumption | eapply scoped_stmt_mono; eassumption | eapply scoped_stmt_mono; eassumption
      | exact G1a | exact G1b | exact I].
Qed.

Lemma spec_print : forall nl a next, Pt a -> FFs next -> FFs (CPrint nl a next).
Proof.
  intros nl a next (IHa & _) IHn m T env W OK Hi S. simpl in W, OK, Hi, S. bsplit.
  rewrite focus_print. apply IHa with (T := T); auto.
  intros b1 m1 env1 L1 S1 [G1a G1b]. unfold print_k.
  destruct (IHn m1 T env1) as (n' & m3 & E3 & L3 & B3 & I3 & S3);
    [assumption | exact (okids_le (okids_r OK) L1) | assumption | eapply scoped_stmt_mono; eauto |].
  rewrite E3; simpl. apply post_ok; simpl; [lia | exact B3 | |]; bsplit; auto. apply N.leb_le; lia.
Qed.

Lemma spec_call : forall f args ty, Forall FBa args -> FFs (CCall f args ty).
Proof.
  intros f args ty IHargs m T env W OK Hi S. simpl in W, OK, Hi, S.
  rewrite focus_call. cbn [binder_ids_stmt]. rewrite <- (app_nil_r (flat_map binder_ids_arg args)).
  apply bind_many_spec with (T := T); auto; try (rewrite app_nil_r; assumption).
  intros bs m1 env1 L1 S1 G1. destruct (good_ids _ _ _ G1) as [G1a G1b]. unfold call_kv.
  eexists _, _. split; [reflexivity|]. split; [lia|]. simpl. split; [apply bspec_nil|]. auto.
Qed.

Lemma spec_exit : forall a ty, Pt a -> FFs (CExit a ty).
Proof.
  intros a ty (IHa & _) m T env W OK Hi S. simpl in W, OK, Hi, S.
  rewrite focus_exit. cbn [binder_ids_stmt]. rewrite <- (app_nil_r (binder_ids_term a)).
  apply IHa with (T := T); auto; try (rewrite app_nil_r; assumption).
  intros b1 m1 env1 L1 S1 [G1a G1b]. unfold exit_k.
  eexists _, _. split; [reflexivity|]. split; [lia|]. simpl. split; [apply bspec_nil|].
  split; [apply N.leb_le; lia | exact G1b].
Qed.

Lemma focus_spec_all :
  (forall t, Pt t) /\ (forall a, FBa a) /\ (forall c, FFc c) /\ (forall s, FFs s).
Proof.
  apply core_mutind.
  - exact spec_xvar.
  - exact spec_lit.
  - exact spec_op.
  - exact spec_mu.
  - exact spec_xtor.
  - exact spec_xcase.
  - intros p (IHp & _) k m T Rk env. exact (IHp CPrd k m T Rk env).
  - intros p (IHp & _) k m T Rk env. exact (IHp CCns k m T Rk env).
  - exact spec_clause.
  - exact spec_cut.
  - exact spec_ifc.
  - exact spec_print.
  - exact spec_call.
  - exact spec_exit.
Qed.
