(* C08, forward simulation of the RISC-V code generator: statement-level simulation lemmas
   for Literal, Op (defined and undefined results), IfC (all 12 jump forms), Exit, Call and Substitute,
   for EVERY context within capacity (any aliasing of operands).  Compositions of the selection lemmas
   of Proof/RVSel.v and of the substitution theorems of Proof/RVSubst.v with the state relation of
   Proof/RVSimRel.v. *)
From Coq Require Import List ZArith NArith String Bool Lia FMapPositive Permutation.
From SCC Require Import Base.Sexp Lang.AxSyn Sem.AxSem Model.ParMoves Model.Backend Model.RV Sem.RVSem Sem.RVWf
     Model.Linearize Model.LinCheck Generated.Constants Proof.LinBasics
     Proof.RVSel Proof.SubstGraph Proof.SubstBackends Proof.RVSubst Proof.RVSimAddr Proof.BackendInv Proof.RVSimRel.
From SCC Require Proof.A64PM.
Import ListNotations.
Open Scope Z_scope.
Open Scope list_scope.

Definition same_mem (s s' : rstate) : Prop := forall a, hword s' a = hword s a.
Lemma same_mem_refl s : same_mem s s. Proof. intros a; reflexivity. Qed.
Lemma same_mem_trans s1 s2 s3 : same_mem s1 s2 -> same_mem s2 s3 -> same_mem s1 s3.
Proof. intros A B a. now rewrite B, A. Qed.
Lemma same_mem_rset s t v : same_mem s (rset s t v).
Proof. intros a. apply hword_rset. Qed.

Lemma padd_1' pc : padd pc 1 = Pos.succ pc. Proof. reflexivity. Qed.

Section Sim.
Variable im : image.
Variable CL : Z -> ident -> list clause -> Prop.
Local Notation rrel := (rrel CL).

Lemma rr_push_int c e s v z t :
  rrel c e s -> NoDup (ids (c ++ [mkb v Ext I64])) -> rtpos Snd (List.length c) = Ok t ->
  rrel (c ++ [mkb v Ext I64]) (e ++ [(v, VInt z)]) (rset s t (Some z)).
Proof.
  intros R ND T. apply (rr_push CL c e s _ (mkb v Ext I64) (VInt z) R ND).
  - intros r NR _. apply rget_rset_other. intros E. subst r. exact (NR Snd T).
  - eapply vrep_int; eauto. apply rget_rset_same. apply rtpos_regs in T. tauto.
Qed.

Theorem sim_literal c e s n v tv pc :
  rrel c e s -> NoDup (ids (c ++ [mkb v Ext I64])) ->
  rvt (c ++ [mkb v Ext I64]) (idn v) = Ok tv ->
  at_code im pc (r_load_immediate tv n) ->
  exists s', star im pc s (padd pc 1) s' /\
             rrel (c ++ [mkb v Ext I64]) (e ++ [(v, VInt n)]) s' /\ same_mem s s'.
Proof.
  intros R ND TV CA. apply (rvt_fresh c (mkb v Ext I64) tv ND) in TV.
  exists (rset s tv (Some n)). split; [|split; [now apply rr_push_int|apply same_mem_rset]].
  eapply star_next; [exact CA|reflexivity].
Qed.

Lemma op_temps c e s a b v x y tv ta tb :
  rrel c e s -> NoDup (ids (c ++ [mkb v Ext I64])) ->
  lookup_int e a = Some x -> lookup_int e b = Some y ->
  rvt (c ++ [mkb v Ext I64]) (idn v) = Ok tv ->
  rvt (c ++ [mkb v Ext I64]) (idn a) = Ok ta -> rvt (c ++ [mkb v Ext I64]) (idn b) = Ok tb ->
  rtpos Snd (List.length c) = Ok tv /\ rget s ta = Some x /\ rget s tb = Some y.
Proof.
  intros R ND LA LB TV TA TB. apply (rvt_fresh c (mkb v Ext I64) tv ND) in TV.
  destruct (rr_operand_app CL c _ e s a x ta R ND LA TA) as (VA & _).
  destruct (rr_operand_app CL c _ e s b y tb R ND LB TB) as (VB & _). auto.
Qed.

Theorem sim_op c e s a o b v x y z tv ta tb pc :
  rrel c e s -> NoDup (ids (c ++ [mkb v Ext I64])) ->
  lookup_int e a = Some x -> lookup_int e b = Some y -> eval_op o x y = OpVal z ->
  rvt (c ++ [mkb v Ext I64]) (idn v) = Ok tv ->
  rvt (c ++ [mkb v Ext I64]) (idn a) = Ok ta -> rvt (c ++ [mkb v Ext I64]) (idn b) = Ok tb ->
  at_code im pc (r_arith o tv ta tb) ->
  exists s', star im pc s (padd pc 1) s' /\
             rrel (c ++ [mkb v Ext I64]) (e ++ [(v, VInt z)]) s' /\ same_mem s s'.
Proof.
  intros R ND LA LB EV TV TA TB CA.
  destruct (op_temps c e s a b v x y tv ta tb R ND LA LB TV TA TB) as (TV' & VA & VB).
  exists (rset s tv (Some z)). split; [|split; [now apply rr_push_int|apply same_mem_rset]].
  destruct (rv_arith_step im o tv ta tb s x y VA VB) as (ci & E & ST). rewrite E in CA.
  eapply star_next; [exact CA|]. intros ad. now rewrite ST, EV.
Qed.

(* the undefined cases of div and rem: the one instruction reports them *)
Theorem sim_op_undef c e s a o b v x y w tv ta tb :
  rrel c e s -> NoDup (ids (c ++ [mkb v Ext I64])) ->
  lookup_int e a = Some x -> lookup_int e b = Some y -> eval_op o x y = OpUndef w ->
  rvt (c ++ [mkb v Ext I64]) (idn v) = Ok tv ->
  rvt (c ++ [mkb v Ext I64]) (idn a) = Ok ta -> rvt (c ++ [mkb v Ext I64]) (idn b) = Ok tb ->
  exists ci, r_arith o tv ta tb = [ci] /\ forall ad, step im ad ci s = Undefd w s.
Proof.
  intros R ND LA LB EV TV TA TB.
  destruct (op_temps c e s a b v x y tv ta tb R ND LA LB TV TA TB) as (TV' & VA & VB).
  destruct (rv_arith_step im o tv ta tb s x y VA VB) as (ci & E & ST).
  exists ci. split; [exact E|]. intros ad. now rewrite ST, EV.
Qed.

Theorem sim_ifc c e s so a b x y types thenc elsec lc code lc' pc :
  rrel c e s -> lookup_int e a = Some x ->
  match b with Some b => lookup_int e b | None => Some 0 end = Some y ->
  rcs types (IfC so a b thenc elsec) c lc = Ok (code, lc') ->
  placed im pc code ->
  exists c2 lc2 c3,
    code = [jcc so (match rvt c (idn a) with Ok t => t | Err _ => 0%N end)
                   (match b with Some b => match rvt c (idn b) with Ok t => t | Err _ => 0%N end | None => ZERO end) (iflabel lc)]
           ++ c2 ++ [LAB (iflabel lc)] ++ c3 /\
    rcs types elsec c (lc + 1)%N = Ok (c2, lc2) /\ rcs types thenc c lc2 = Ok (c3, lc') /\
    star im pc s (if eval_cmp so x y then padd pc (1 + List.length c2 + 1) else padd pc 1) s.
Proof.
  intros R LA LB CS [CA LO].
  destruct (cs_ifc _ _ _ _ _ _ _ _ _ _ _ CS) as (ta & c1 & c2 & lc2 & c3 & TA & C1 & EL & TH & ->).
  cbn [b_mark rv_backend app b_label] in *. exists c2, lc2, c3. rewrite TA.
  destruct (rr_operand CL c e s a x ta R LA TA) as (VA & _).
  assert (PRE : exists tb, c1 = [jcc so ta tb (iflabel lc)] /\ rget s tb = Some y /\
                 tb = match b with Some b => match rvt c (idn b) with Ok t => t | Err _ => 0%N end | None => ZERO end).
  { destruct b as [b|].
    - destruct C1 as (tb & TB & ->). destruct (rr_operand CL c e s b y tb R LB TB) as (VB & _).
      exists tb. rewrite TB. cbn [b_jcc2 rv_backend]. auto.
    - inversion LB; subst y. exists ZERO. cbn [b_jcc1 rv_backend] in C1. auto. }
  destruct PRE as (tb & -> & VB & <-). split; [reflexivity|]. split; [exact EL|]. split; [exact TH|].
  cbn [app] in CA, LO.
  assert (LL : nth_error (jcc so ta tb (iflabel lc) :: c2 ++ LAB (iflabel lc) :: c3) (1 + List.length c2) = Some (LAB (iflabel lc))).
  { cbn [Nat.add nth_error]. apply nth_error_mid. }
  pose proof (LO _ _ LL) as FL.
  assert (ST : forall ad, step im ad (jcc so ta tb (iflabel lc)) s = if eval_cmp so x y then Jump s (padd pc (1 + List.length c2)) else Next s).
  { intros ad. rewrite (step_jcc im ad so ta tb _ s x y VA VB). unfold goto_label. now rewrite FL. }
  destruct (eval_cmp so x y).
  - eapply star_trans; [eapply star_jump; [exact CA|exact ST]|].
    destruct (CA _ _ LL) as (HC & (ad & HA)).
    eapply star_step; [eapply one_next; [exact HC|exact HA|reflexivity]|].
    rewrite <- padd_succ. change (padd (Pos.succ pc) (1 + List.length c2)) with (padd pc (S (1 + List.length c2))).
    replace (S (1 + List.length c2)) with (1 + List.length c2 + 1)%nat by lia. apply star_refl.
  - eapply star_next; [exact CA|exact ST].
Qed.

(* Exit: the result reaches X10, then control goes to `cleanup` *)
Theorem sim_exit c e s v z types lc code lc' pc stop :
  rrel c e s -> lookup_int e v = Some z ->
  rcs types (Exit v) c lc = Ok (code, lc') -> at_code im pc code ->
  find_label (labels im) "cleanup" = Some stop ->
  exists s', star im pc s stop s' /\ final_check s' = OExit z /\ same_mem s s'.
Proof.
  intros R LV CS CA FL.
  destruct (cs_exit _ _ _ _ _ _ _ CS) as (tv & TV & -> & _). cbn [b_mark b_mov b_return1 b_jump_label rv_backend app r_mov r_jump_label] in CA.
  destruct (rr_operand CL c e s v z tv R LV TV) as (VV & _).
  exists (rset s RETURN1 (rget s tv)). split; [|split].
  - eapply star_trans; [eapply star_next; [exact CA|reflexivity]|].
    apply at_code_cons in CA as [_ CA].
    eapply star_jump; [exact CA|]. intros ad. now apply step_JAL0.
  - unfold final_check. rewrite rget_rset_same by discriminate. now rewrite VV.
  - apply same_mem_rset.
Qed.

Theorem sim_call s types l args c lc cd lc' pc pcd :
  rcs types (Call l args) c lc = Ok (cd, lc') -> at_code im pc cd ->
  find_label (labels im) (show_ident l +++ "_") = Some pcd ->
  (exists a, PM.find pcd (code im) = Some (LAB (show_ident l +++ "_")) /\ PM.find pcd (addr_of im) = Some a) ->
  star im pc s (Pos.succ pcd) s.
Proof.
  intros CS CA FL (a & HC & HA). destruct (cs_call _ _ _ _ _ _ _ _ CS) as (-> & _).
  cbn [b_mark b_jump_label rv_backend app r_jump_label] in CA.
  eapply star_trans; [eapply (star_jump im _ _ _ _ s); [exact CA|]|].
  - intros ad. apply step_JAL0. exact FL.
  - eapply star_step; [eapply one_next; [exact HC|exact HA|reflexivity]|apply star_refl].
Qed.
End Sim.

(* in a context of integers no reference count is touched *)
Lemma cwc_int tm c : forall lc,
  (forall b tg, In (b, tg) tm -> bchi b = Ext) -> code_weakening_contraction rv_backend tm c lc = Ok ([], lc).
Proof.
  induction tm as [|[b tg] tm IH]; intros lc H; cbn [code_weakening_contraction]; [reflexivity|].
  rewrite (H b tg (or_introl eq_refl)). apply IH. intros b' tg' Hin. apply (H b' tg'). now right.
Qed.

Section Sim3.
Variable im : image.
Variable CL : Z -> ident -> list clause -> Prop.
Local Notation rrel := (rrel CL).

(* the registers of a source position and of a new position it is assigned to are joined by an edge of
   the move graph, because the moves were emitted *)
Lemma subst_edge c re am n i bi j pj :
  NoDup (ids c) -> NoDup (new_ids re) ->
  connections rv_backend (transpose re c) c (map fst re) = Ok am ->
  nth_error c i = Some bi -> allowed n bi -> nth_error re j = Some pj -> idn (snd pj) = idn (bvar bi) ->
  exists ta tb, rtpos n i = Ok ta /\ rtpos n j = Ok tb /\ edge rtemp rv_teqb am ta tb.
Proof.
  intros NDc NDn CN Hbi AL Hre EQ.
  destruct (all_ok rv_backend rv_backend_ok c re am NDc NDn CN n i bi Hbi AL) as (a & ts & K & _).
  pose proof (connections_edges rv_backend rv_backend_ok c re am NDc NDn CN) as EDG.
  unfold op_kv in K. rewrite (vt_tpos rv_backend n c i bi NDc Hbi) in K.
  destruct (rtpos n i) as [ta|] eqn:TA; cbn [rbind] in K; [|discriminate].
  destruct (rmap _ (targets re bi)) as [ts0|] eqn:RM; cbn [rbind] in K; [|discriminate].
  apply rmap_Forall2 in RM.
  assert (In (idn (bvar (fst pj))) (targets re bi)) as I.
  { unfold targets. apply in_map_iff. exists pj. split; auto. apply filter_In. split.
    - eapply nth_error_In; eauto.
    - apply N.eqb_eq. congruence. }
  destruct (Forall2_In_l _ _ _ _ RM I) as (tb & _ & Vy). cbn beta in Vy.
  rewrite (vt_tpos_new rv_backend n re j pj NDn Hre) in Vy.
  exists ta, tb. split; [reflexivity|]. split; [exact Vy|]. apply EDG. exists i, j, bi, pj, n. repeat split; auto.
Qed.

(* Substitute, any mix of integer and closure variables: the reference-count code (one skipped erase /
   share per closure variable that is dropped / duplicated: the block pointer of a closure without
   captured variables is null) followed by the parallel moves leaves the machine's rearranged
   environment in the registers of the new context *)
Theorem sim_substitute c e s re vs e' c1 lc lc1 c2 pc :
  rrel c e s -> NoDup (new_ids re) ->
  (forall q, In q re -> has c (snd q) (bchi (fst q)) (bty (fst q)) = true) ->
  lookups e (map snd re) = Some vs -> bind (map (fun r => bvar (fst r)) re) vs = Some e' ->
  code_weakening_contraction rv_backend (transpose re c) c lc = Ok (c1, lc1) ->
  code_exchange rv_backend (transpose re c) c (map fst re) = Ok c2 ->
  placed im pc (c1 ++ c2) ->
  exists s', star im pc s (padd pc (List.length (c1 ++ c2))) s' /\ rrel (map fst re) e' s' /\ same_mem s s'.
Proof.
  intros R NDn KIND LK BD WC CE PL.
  pose proof (rr_nodup R) as NDc. pose proof (rr_length R) as LEN.
  apply placed_app in PL as [PL1 [CA2 _]].
  unfold code_exchange in CE.
  destruct (connections rv_backend (transpose re c) c (map fst re)) as [am|] eqn:CN; cbn [rbind] in CE; [|discriminate].
  (* every new variable has a source position of the same kind and type *)
  assert (SRC : forall j pj, nth_error re j = Some pj ->
            exists i bi, nth_error c i = Some bi /\ idn (bvar bi) = idn (snd pj) /\
                         bchi bi = bchi (fst pj) /\ bty bi = bty (fst pj)).
  { intros j pj Hj. specialize (KIND pj (nth_error_In _ _ Hj)). unfold has in KIND.
    destruct (lookup_b c (idn (snd pj))) as [bi|] eqn:LB; [|discriminate].
    apply lookup_b_Some in LB as [Hin Hid]. apply andb_true_iff in KIND as [K1 K2].
    apply chi_eqb_eq in K1. apply ty_eqb_eq in K2. apply In_nth_error in Hin as (i & Hi). eauto 8. }
  (* at most 14 new variables: each has registers, and position 14 would need register 4 + 2 * 14 = 32 = REGISTER_NUM
     (rtpos_val) *)
  assert (LR : (List.length re <= 14)%nat).
  { destruct (Nat.le_gt_cases (List.length re) 14) as [L|L]; [lia|]. exfalso.
    destruct (nth_error re 14) as [pj|] eqn:Hj; [|apply nth_error_None in Hj; lia].
    destruct (SRC _ _ Hj) as (i & bi & Hi & Ei & _).
    destruct (subst_edge c re am Snd i bi 14%nat pj NDc NDn CN Hi (or_introl eq_refl) Hj (eq_sym Ei)) as (_ & tb & _ & Tb & _).
    apply rtpos_val in Tb. lia. }
  (* phase 1: reference counts, all on null pointers *)
  destruct (weakening_contraction_counts rv_backend c re lc c1 lc1 NDc WC) as (order & PERM & _ & ORD & ops & F2 & EM).
  assert (OBJ : forall i b, In (i, b) order -> is_obj b = true).
  { intros i b Hin. assert (In b (map snd order)) as Hb by (apply in_map_iff; exists (i, b); auto).
    eapply Permutation_in in Hb; [|exact PERM]. apply filter_In in Hb. tauto. }
  assert (NULL : forall i b t, In (i, b) order -> rtpos Fst i = Ok t -> rget s t = Some 0).
  { intros i b t Hin Ht. pose proof (ORD i b Hin) as Hnth. pose proof (OBJ i b Hin) as Ho.
    assert (Li : (i < List.length e)%nat) by (rewrite LEN; apply nth_error_Some; congruence).
    destruct (nth_error e i) as [[y v]|] eqn:He; [|apply nth_error_None in He; lia].
    destruct (rr_vals R i y v He) as (b' & Hb' & V). assert (b' = b) by congruence. subst b'.
    inversion V; subst.
    - unfold is_obj in Ho. match goal with H : bchi b = Ext |- _ => rewrite H in Ho end. discriminate.
    - congruence. }
  assert (RCOK : Forall (rc_ok s) (List.concat ops)).
  { apply (rc_ops_Forall _ re order ops F2). intros i b t Hin Ht.
    apply (rc_op_for_ok s t _ 0 (rtpos_ok Fst i t Ht) (NULL i b t Hin Ht) (or_introl eq_refl)).
    pose proof (count_targets_le re b). lia. }
  assert (EMc : c1 = fst (emit_rc rv_backend (List.concat ops) lc)) by (now rewrite <- EM).
  destruct (rr_heap R) as (h0 & HP). destruct (rr_free R) as (f0 & FR).
  set (ah := {| words := hword s; hp := h0; fp := f0 |}).
  assert (RP : represents s ah) by (repeat split; auto).
  rewrite EMc in PL1.
  destruct (rv_emit_rc_ok im s (List.concat ops) pc lc s ah RCOK (fun r _ _ => eq_refl) PL1 RP) as (s1 & X1 & X2 & X4).
  rewrite <- EMc in X1.
  (* null pointers: the abstract heap is unchanged *)
  assert (Z0 : Forall (fun o => ptr_of s (rc_temp o) = 0) (List.concat ops)).
  { apply (rc_ops_Forall _ re order ops F2). intros i b t Hin Ht. pose proof (NULL i b t Hin Ht) as Hp.
    destruct (count_targets re b) as [|[|k]]; cbn [rc_op_for]; repeat constructor; cbn [rc_temp]; unfold ptr_of; now rewrite Hp. }
  assert (ID : fold_left (fun h o => rc_a s o h) (List.concat ops) ah = ah).
  { clear -Z0. induction Z0 as [|o l Ho _ IH]; cbn [fold_left]; [reflexivity|].
    replace (rc_a s o ah) with ah; [exact IH|]. destruct o; cbn [rc_a rc_temp] in *; now rewrite Ho. }
  rewrite ID in X2. destruct X2 as (W1 & HP1 & FR1). cbn [words hp fp ah] in W1, HP1, FR1.
  (* phase 2: the parallel moves *)
  destruct (connections_moves_ok c re am NDc NDn CN) as (IDG & NT & AMOK).
  pose proof (connections_edges rv_backend rv_backend_ok c re am NDc NDn CN) as EDG.
  destruct (rv_parallel_moves_ok im (padd pc (List.length c1)) am c2 s1 IDG NT AMOK CE CA2) as (s2 & E2 & H2 & W2 & P1 & P2).
  assert (KEEP : forall u, (u = HEAP \/ u = FREE) -> rget s2 u = rget s1 u).
  { intros u Hu. apply P2.
    - unfold rv_operand_ok. change ZERO with 0%N. change TEMP with 1%N. change HEAP with 2%N in Hu. change FREE with 3%N in Hu. lia.
    - intros a E. apply EDG in E as (k & j & bk & pj & n & _ & _ & _ & _ & _ & Hb). apply rtpos_regs in Hb. destruct Hu; subst; tauto. }
  exists s2. split; [rewrite app_length, padd_add; eapply star_trans; eauto|]. split.
  - split.
    + exists h0. rewrite KEEP by auto. exact HP1.
    + exists f0. rewrite KEEP by auto. exact FR1.
    + unfold env_ids. rewrite <- (map_map fst idn), (SimFrag.bind_ids _ _ _ BD). unfold ids. now rewrite !map_map.
    + now rewrite ids_new.
    + intros j x v Hj.
      destruct (SimFrag.bind_nth _ _ _ _ _ _ BD Hj) as (Hx & Hv).
      rewrite nth_error_map in Hx. destruct (nth_error re j) as [pj|] eqn:Hre; [|discriminate]. cbn in Hx. inversion Hx; subst x.
      exists (fst pj). split; [now rewrite nth_error_map, Hre|].
      destruct (SimFrag.lookups_nth e (map snd re) vs j (snd pj) LK) as (v' & Hv' & LV).
      { now rewrite nth_error_map, Hre. }
      assert (v' = v) by congruence. subst v'.
      unfold lookup_id in LV. destruct (SimFrag.lookup_nth e _ _ LV) as (i & y & Hi & Ey).
      destruct (rr_vals R i y v Hi) as (bi & Hbi & V).
      destruct (SRC j pj Hre) as (i' & bi' & Hi' & Ei' & KC & KT).
      assert (i' = i).
      { destruct (SimFrag.env_ctx_nth c e i y v (rr_ids R) Hi) as (b0 & Hb0 & Eb0).
        eapply (ids_nth_inj c i' i bi' b0); eauto. congruence. }
      subst i'. assert (bi' = bi) by congruence. subst bi'.
      assert (MV : forall n ta, allowed n bi -> rtpos n i = Ok ta -> exists tb, rtpos n j = Ok tb /\ rget s2 tb = rget s ta).
      { intros n ta AL Ta.
        destruct (subst_edge c re am n i bi j pj NDc NDn CN Hbi AL Hre (eq_sym Ei')) as (ta' & tb & Ta' & Tb & ED).
        assert (ta' = ta) by congruence. subst ta'. exists tb. split; [exact Tb|].
        rewrite (P1 ta tb ED). destruct (rtpos_regs n i ta Ta) as (_ & A1 & _ & A3). now apply X4. }
      inversion V; subst.
      * match goal with H : rtpos Snd i = Ok _ |- _ => destruct (MV Snd _ (or_introl eq_refl) H) as (tb & Tb & Lb) end.
        eapply vrep_int; eauto; congruence.
      * assert (AL : forall n, allowed n bi) by (intros n; right; congruence).
        match goal with H1 : rtpos Fst i = Ok _, H2 : rtpos Snd i = Ok _ |- _ =>
          destruct (MV Fst _ (AL Fst) H1) as (tb1 & Tb1 & Lb1); destruct (MV Snd _ (AL Snd) H2) as (tb2 & Tb2 & Lb2) end.
        eapply vrep_clo; eauto; congruence.
  - intros a. unfold hword. rewrite H2. apply W1.
Qed.
End Sim3.
