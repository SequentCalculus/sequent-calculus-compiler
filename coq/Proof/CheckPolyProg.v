(* C15, program level, programs WITH type parameters and type arguments: check (the code as it is,
   and the code before fix d524b1f) accepts only programs that satisfy the declarative rules -
   provided the types written inside data/codata declarations are well-formed ([decl_types_wf],
   the complement of the former finding C15-lazy-declaration-types; since fix eb42971 the checker
   establishes it, Proof/CheckDecls.v, and Proof/CheckFixed.v drops the hypothesis) and all type / constructor / destructor names are identifier-like ([prog_names_ok]; true of
   every parsed program). *)
From Coq Require Import List ZArith String Bool Permutation Lia.
From SCC Require Import Base.Sexp Lang.SynUtil Lang.FunSyn Model.Check Sem.FunTyping
  Proof.FunInd Proof.FunEq Proof.CheckAnn Proof.TypingReject Proof.CheckBuild Proof.CheckMono Proof.CheckMonoSound
  Proof.CheckMonoProg Proof.PrintInj Proof.CheckPoly Proof.CheckInstBase Proof.CheckPolySound.
From SCC Require Import Sem.FunClosed.
Import ListNotations.
Open Scope list_scope.

Lemma decls_ok_types_wf : forall ts, decls_ok ts = true -> decl_types_wf ts = true.
Proof.
  intros ts H. unfold decls_ok, decl_types_wf in *. rewrite forallb_forall in *. intros t Ht.
  specialize (H t Ht). unfold tdecl_ok in H. apply andb_true_iff in H. tauto.
Qed.

Lemma poly_world_of_prog : forall p,
  prog_names_ok p = true -> names_ok (tdecls (fpdecls p)) (fdefs (fpdecls p)) = true ->
  (forall td, In td (tdecls (fpdecls p)) -> nodup (td_params td) = true) ->
  poly_world (tdecls (fpdecls p)) (fdefs (fpdecls p)).
Proof.
  intros p Hm Hn Hps. unfold prog_names_ok in Hm. rewrite forallb_forall in Hm.
  constructor; [assumption|assumption| | | | |].
  - intros td Hin. destruct (in_tdecls _ _ Hin) as [d [Hd Ht]]. specialize (Hm d Hd).
    destruct d as [d|d|d]; simpl in Ht; inversion Ht; subst; simpl in *; apply andb_true_iff in Hm; tauto.
  - intros td s Hin Hs. destruct (in_tdecls _ _ Hin) as [d [Hd Ht]]. specialize (Hm d Hd).
    destruct d as [d|d|d]; simpl in Ht; inversion Ht; subst; simpl in *.
    + apply andb_true_iff in Hm. destruct Hm as [_ Hm]. rewrite forallb_forall in Hm.
      apply in_map_iff in Hs. destruct Hs as [c [<- Hc]]. simpl. specialize (Hm c Hc). apply andb_true_iff in Hm. tauto.
    + apply andb_true_iff in Hm. destruct Hm as [_ Hm]. rewrite forallb_forall in Hm.
      apply in_map_iff in Hs. destruct Hs as [c [<- Hc]]. simpl. specialize (Hm c Hc).
      apply andb_true_iff in Hm. destruct Hm as [Hm _]. apply andb_true_iff in Hm. tauto.
  - intros td s Hin Hs. destruct (in_tdecls _ _ Hin) as [d [Hd Ht]]. specialize (Hm d Hd).
    destruct d as [d|d|d]; simpl in Ht; inversion Ht; subst; simpl in *.
    + apply andb_true_iff in Hm. destruct Hm as [_ Hm]. rewrite forallb_forall in Hm.
      apply in_map_iff in Hs. destruct Hs as [c [<- Hc]]. simpl. specialize (Hm c Hc). apply andb_true_iff in Hm.
      split; [tauto|reflexivity].
    + apply andb_true_iff in Hm. destruct Hm as [_ Hm]. rewrite forallb_forall in Hm.
      apply in_map_iff in Hs. destruct Hs as [c [<- Hc]]. simpl. specialize (Hm c Hc).
      apply andb_true_iff in Hm. destruct Hm as [Hm Hr]. apply andb_true_iff in Hm. split; [tauto|assumption].
  - intros d Hin. apply in_fdefs in Hin. specialize (Hm _ Hin). simpl in Hm.
    apply andb_true_iff in Hm. destruct Hm as [Hm _]. apply andb_true_iff in Hm. exact Hm.
  - intros td s Hin Hp Hs. destruct (in_tdecls _ _ Hin) as [d [Hd Ht]].
    destruct d as [d|d|d]; simpl in Ht; inversion Ht; subst; simpl in *; [discriminate|].
    apply in_map_iff in Hs. destruct Hs as [c [<- Hc]]. simpl. discriminate.
Qed.
Lemma names_def_body : forall p d, prog_names_ok p = true -> In d (fdefs (fpdecls p)) -> term_names_ok (fdbody d) = true.
Proof.
  intros p d Hm Hin. unfold prog_names_ok in Hm. rewrite forallb_forall in Hm.
  apply in_fdefs in Hin. specialize (Hm _ Hin). simpl in Hm. apply andb_true_iff in Hm. tauto.
Qed.

Section Defs.
  Variable ts : list tdecl.
  Variable fs : list fdef.
  Hypothesis W : poly_world ts fs.

  Lemma ctx_check_psound : forall c st st', ctx_names_ok c = true -> tables ts fs st -> pinv ts st ->
    ctx_check c st = COk st' ->
    forallb (fun b => wf_ty ts (fbty b)) c = true /\ pinv ts st' /\ same_templates st st' /\ grows st st'
    /\ ctx_declared (ikeys st') c = true.
  Proof.
    induction c as [|b r IH]; intros st st' Hm Tb I H; simpl in *.
    - inversion H; subst. auto 10 using same_templates_refl, grows_refl.
    - apply andb_true_iff in Hm. destruct Hm as [Hb Hr].
      apply cbind_ok in H. destruct H as [st1 [H1 H]].
      destruct (ty_check_sound ts fs W _ _ _ Hb Tb I H1) as [Hw [I1 [S1 [G1 Hi1]]]].
      destruct (IH st1 st' Hr (tables_same _ _ _ _ Tb S1) I1 H) as [Hwr [I2 [S2 [G2 C2]]]].
      rewrite Hw, Hwr. splits; frame.
      rewrite C2, andb_true_r. eapply ty_declared_mono; [apply (grows_names_le _ _ G2)|]. apply has_inst_declared. exact Hi1.
  Qed.

  Lemma main_ret_check_psound : forall d st st', ty_names_ok (fdret d) = true -> tables ts fs st -> pinv ts st ->
    main_ret_check d st = COk st' -> main_ret_ok d = true /\ pinv ts st' /\ same_templates st st' /\ grows st st'.
  Proof.
    intros d st st' Hm Tb I H. unfold main_ret_check in H. unfold main_ret_ok.
    destruct (String.eqb (fdname d) "main").
    - destruct (check_equality_sound ts fs W FI64 (fdret d) st st' eq_refl Hm Tb I H) as [E [_ [I' [S [G _]]]]].
      rewrite <- E. splits; auto.
    - inversion H; subst. splits; auto using same_templates_refl, grows_refl.
  Qed.

  Lemma def_check_gen_psound : forall eager d st d' st',
    ctx_names_ok (fdctx d) = true -> ty_names_ok (fdret d) = true -> term_names_ok (fdbody d) = true ->
    tables ts fs st -> pinv ts st -> def_check_gen eager d st = COk (d', st') ->
    def_ok ts fs d = true /\ pinv ts st' /\ same_templates st st' /\ grows st st' /\ def_closed (ikeys st') d' = true.
  Proof.
    intros eager d st d' st' Hmc Hmr Hmb Tb I H. apply run_def in H.
    destruct H as (st1 & st2a & st2 & body' & Hnd & H1 & H2 & H2m & H3 & ->).
    apply ctx_no_dups_go_ok in Hnd. destruct Hnd as [Hnd _].
    destruct (ctx_check_psound _ _ _ Hmc Tb I H1) as [Hwc [I1 [S1 [G1 C1]]]].
    destruct (ty_check_sound ts fs W _ _ _ Hmr (tables_same _ _ _ _ Tb S1) I1 H2) as [Hwr [I2a [S2a [G2a Hi2]]]].
    assert (S02a : same_templates st st2a) by frame.
    destruct (main_ret_check_psound d st2a st2 Hmr (tables_same _ _ _ _ Tb S02a) I2a H2m) as [Hmain [I2 [S2 G2m]]].
    assert (S02 : same_templates st st2) by frame.
    assert (G2 : grows st1 st2) by frame.
    destruct (check_term_gen_psound ts fs W (fdbody d) eager st2 (fdctx d) (fdret d) body' st' Hmb Hmc Hmr (tables_same _ _ _ _ Tb S02) I2 H3)
      as [K [I3 [S3 [G3 C3]]]].
    unfold def_ok. unfold E in K. rewrite Hmain, Hnd, Hwc, Hwr, K. splits; frame.
    unfold def_closed. simpl. rewrite C3, andb_true_r.
    rewrite (ctx_declared_mono _ _ _ (grows_names_le _ _ (grows_trans _ _ _ G2 G3)) C1).
    exact (ty_declared_mono _ _ _ (grows_names_le _ _ (grows_trans _ _ _ G2m G3)) (has_inst_declared _ _ Hi2)).
  Qed.

  Lemma check_defs_gen_psound : forall eager ds st ds' st',
    (forall d, In d ds -> ctx_names_ok (fdctx d) = true /\ ty_names_ok (fdret d) = true /\ term_names_ok (fdbody d) = true) ->
    tables ts fs st -> pinv ts st -> check_defs_gen eager ds st = COk (ds', st') ->
    forallb (def_ok ts fs) ds = true /\ pinv ts st' /\ same_templates st st' /\ grows st st'
    /\ forallb (def_closed (ikeys st')) ds' = true.
  Proof.
    intros eager ds. induction ds as [|d r IH]; intros st ds' st' Hm Tb I H.
    - simpl in H. inversion H; subst. simpl. auto 10 using same_templates_refl, grows_refl.
    - apply run_defs_cons in H. destruct H as (d' & st1 & r' & H1 & H2 & ->).
      destruct (Hm d (or_introl eq_refl)) as [Hc [Hr Hb]].
      destruct (def_check_gen_psound eager d st d' st1 Hc Hr Hb Tb I H1) as [Hd [I1 [S1 [G1 C1]]]].
      destruct (IH st1 r' st' (fun d0 Hd0 => Hm d0 (or_intror Hd0)) (tables_same _ _ _ _ Tb S1) I1 H2) as [Hr' [I2 [S2 [G2 C2]]]].
      simpl. rewrite Hd, Hr'. splits; frame.
      rewrite C2, andb_true_r. exact (def_closed_mono _ _ _ (grows_names_le _ _ G2) C1).
  Qed.
End Defs.

(* the run of check on a program with identifier-like names, opened up.
   st: the symbol table that was built, st1: the table after the definitions, das/cos: the collected instances *)
Record poly_run (eager : bool) (p : fprog) (q : fcprog) (st st1 : symtab) (das : list fdata) (cos : list fcodata) : Prop := {
  pr_world : poly_world (tdecls (fpdecls p)) (fdefs (fpdecls p));
  pr_built : build_symbol_table p = COk st;
  pr_tables : tables (tdecls (fpdecls p)) (fdefs (fpdecls p)) st;
  pr_start : pinv (tdecls (fpdecls p)) st;
  pr_defs : check_defs_gen eager (fdefs (fpdecls p)) st = COk (fcpdefs q, st1);
  pr_names : forall d, In d (fdefs (fpdecls p)) ->
               ctx_names_ok (fdctx d) = true /\ ty_names_ok (fdret d) = true /\ term_names_ok (fdbody d) = true;
  pr_sound : forallb (def_ok (tdecls (fpdecls p)) (fdefs (fpdecls p))) (fdefs (fpdecls p)) = true;
  pr_inv : pinv (tdecls (fpdecls p)) st1;
  pr_closed : forallb (def_closed (ikeys st1)) (fcpdefs q) = true;
  pr_collect : collect_types st1 (st_types st1) = COk (das, cos);
  pr_out : q = mkfcprog (sort_by_name fdaname das) (sort_by_name fcoaname cos) (fcpdefs q)
}.

Arguments pr_world {eager p q st st1 das cos} _.
Arguments pr_built {eager p q st st1 das cos} _.
Arguments pr_tables {eager p q st st1 das cos} _.
Arguments pr_start {eager p q st st1 das cos} _.
Arguments pr_defs {eager p q st st1 das cos} _.
Arguments pr_names {eager p q st st1 das cos} _.
Arguments pr_sound {eager p q st st1 das cos} _.
Arguments pr_inv {eager p q st st1 das cos} _.
Arguments pr_closed {eager p q st st1 das cos} _.
Arguments pr_collect {eager p q st st1 das cos} _.
Arguments pr_out {eager p q st st1 das cos} _.

Lemma check_gen_run : forall eager p q, prog_names_ok p = true -> check_gen eager p = COk q ->
  exists st st1 das cos, poly_run eager p q st st1 das cos.
Proof.
  intros eager p q Hm H. apply run_check in H. destruct H as (st & defs & st1 & das & cos & Hb & _ & Hdefs & Hcol & ->).
  destruct (build_symbol_table_spec p st Hb) as [Tb [Hn [Hty [Hc [Hd Hps]]]]].
  pose proof (poly_world_of_prog p Hm Hn (fun td Hin => proj1 (Hps td Hin))) as W.
  rewrite defs_of_fdefs in Hdefs.
  assert (Hnm : forall d, In d (fdefs (fpdecls p)) ->
            ctx_names_ok (fdctx d) = true /\ ty_names_ok (fdret d) = true /\ term_names_ok (fdbody d) = true).
  { intros d Hin. destruct (PW_defs _ _ W d Hin). splits; auto. eapply names_def_body; eassumption. }
  pose proof (pinv_start (tdecls (fpdecls p)) st Hty Hc Hd) as I0.
  destruct (check_defs_gen_psound _ _ W eager _ st defs st1 Hnm Tb I0 Hdefs) as [K [I1 [_ [_ C1]]]].
  exists st, st1, das, cos. constructor; auto.
Qed.

Theorem check_gen_sound_poly : forall eager p q,
  prog_names_ok p = true -> decl_types_wf (tdecls (fpdecls p)) = true ->
  check_gen eager p = COk q -> has_type_b p = true.
Proof.
  intros eager p q Hm Hwf H. destruct (check_gen_run eager p q Hm H) as (st & st1 & das & cos & R).
  destruct (build_symbol_table_spec p st (pr_built R)) as [_ [Hn [_ [_ [_ Hps]]]]].
  unfold has_type_b. rewrite Hn, (pr_sound R), andb_true_r. simpl.
  unfold decls_ok. apply forallb_forall. intros td Hin. unfold tdecl_ok.
  destruct (Hps td Hin) as [Hp1 Hp2]. rewrite Hp1, Hp2. simpl.
  unfold decl_types_wf in Hwf. rewrite forallb_forall in Hwf. auto.
Qed.
