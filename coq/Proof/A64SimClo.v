(* C07, forward simulation of the AArch64 code generator: closures without captured variables (`create v : T = (){ clauses }`,
   `invoke v D`).  Such a closure needs no heap block: its first temporary is the null pointer and its
   second temporary the address (ADR) of the code the Create statement emitted after its continuation - a
   jump table (one `B` of 4 bytes per destructor) followed by the clause bodies, or the single clause.
   Invoke is `BR tmp` (one destructor) resp. `ADD tmp, tmp, #4k; BR tmp` (table entry k), through X2 when the
   closure lives in a spill slot.  This file: what `code_statement` emits for Create / Invoke, where the
   clause bodies sit in the image and how an indirect branch reaches them (`clo_ok`), and the two
   statement-level simulation theorems.  Mirrors Proof/X86SimClo.v. *)
From Coq Require Import List ZArith NArith String Bool Lia FMapPositive.
From SCC Require Import Lang.AxSyn Sem.AxSem Model.Backend Model.A64 Sem.A64Sem Model.LinCheck Proof.LinBasics
     Proof.A64State Proof.A64Imm Proof.A64Sel Proof.A64Exec Proof.SubstGraph Proof.SubstBackends Proof.A64Subst
     Proof.A64SimRel Proof.A64SimStmt Proof.A64SimAddr.
From SCC Require Proof.BackendInv.
Import ListNotations.
Open Scope Z_scope.
Open Scope list_scope.

Section CC.
Variables (types : list tydecl) (env : ctx) (fresh : string).
Fixpoint clauses_code (l : list clause) (lc : N) {struct l} : res (list acode * N) :=
  match l with
  | [] => Ok ([], lc)
  | (x, cx, body) :: r =>
      dor ld <- a_load env cx lc;
      let '(cl, lc1) := ld in
      dor bd <- acs types body (cx ++ env) lc1;
      let '(cb, lc2) := bd in
      dor rs <- clauses_code r lc2;
      let '(cr, lc3) := rs in
      Ok ([LAB (fresh +++ "_" +++ show_ident x)] ++ cl ++ cb ++ cr, lc3)
  end.
End CC.

Definition table_or_nil (cls : list clause) (fresh : string) : list acode :=
  if Nat.leb (List.length cls) 1 then [] else code_table a64_backend cls fresh.

Lemma cs_create types v t env cls next c lc code lc' :
  acs types (Create v t (Some env) cls next) c lc = Ok (code, lc') ->
  exists rest cenv c1 lc1 tmpv c3 lc3 c5,
    Backend.split_last (List.length env) c = Ok (rest, cenv) /\
    a_store cenv rest lc = Ok (c1, lc1) /\
    avt (rest ++ [mkb v Cns t]) (idn v) = Ok tmpv /\
    acs types next (rest ++ [mkb v Cns t]) (lc1 + 1)%N = Ok (c3, lc3) /\
    clauses_code types cenv (type_label t (lc1 + 1)%N) cls lc3 = Ok (c5, lc') /\
    code = c1 ++ a_load_label tmpv (type_label t (lc1 + 1)%N) ++ c3 ++
           ([LAB (type_label t (lc1 + 1)%N)] ++ table_or_nil cls (type_label t (lc1 + 1)%N)) ++ c5.
Proof. exact (BackendInv.cs_create a64_backend types v t env cls next c lc code lc'). Qed.

Lemma cs_invoke types v tag t args c lc code lc' :
  acs types (Invoke v tag t args) c lc = Ok (code, lc') ->
  exists tmpv d, avt c (idn v) = Ok tmpv /\ lookup_type types t = Ok d /\ lc' = lc /\
    if Nat.leb (List.length (txtors d)) 1 then code = a_jump tmpv
    else exists k, xtor_position (txtors d) tag 0 = Ok k /\ code = a_add_and_jump tmpv (jump_length k).
Proof. exact (BackendInv.cs_invoke a64_backend types v tag t args c lc code lc'). Qed.

(* the code of a statement of the fragment ends with an instruction of non-zero size *)
Definition ends_nz (cs : list acode) : Prop := exists pre c, cs = pre ++ [c] /\ 0 < isize c.
Lemma ends_nz_app a b : ends_nz b -> ends_nz (a ++ b).
Proof. intros (pre & c & -> & H). exists (a ++ pre), c. split; [now rewrite app_assoc|exact H]. Qed.
Lemma ends_nz_last a c : 0 < isize c -> ends_nz (a ++ [c]).
Proof. intros H. exists a, c. auto. Qed.

Lemma clauses_ends_nz types env fresh : forall cls lc c5 lc',
  Forall (fun c => forall ct lc code lc', stmt_cf (cl_body c) = true -> acs types (cl_body c) ct lc = Ok (code, lc') -> ends_nz code) cls ->
  cls <> [] -> clauses_cf cls = true ->
  clauses_code types env fresh cls lc = Ok (c5, lc') -> ends_nz c5.
Proof.
  induction cls as [|[[x cx] body] r IH]; intros lc c5 lc' FA NE CF H; [congruence|].
  cbn [clauses_code] in H. inv_bind H [cl lc1] LD. inv_bind H [cb lc2] BD. inv_bind H [cr lc3] RS.
  inversion H; subst c5 lc'. inversion FA as [|? ? P0 FA']; subst.
  cbn [clauses_cf forallb cl_ctx cl_body fst snd] in CF. apply andb_true_iff in CF as [CF0 CF']. apply andb_true_iff in CF0 as [_ SB].
  apply (ends_nz_app [_]), ends_nz_app. destruct r as [|c' r'].
  - cbn [clauses_code] in RS. inversion RS; subst. rewrite app_nil_r. exact (P0 _ _ _ _ SB BD).
  - apply ends_nz_app. eapply IH; eauto. discriminate.
Qed.

Lemma bcc_nz so l : 0 < isize (bcc so l). Proof. destruct so; cbn; lia. Qed.

Lemma cs_ends_nz types : forall s c lc code lc',
  stmt_cf s = true -> acs types s c lc = Ok (code, lc') -> ends_nz code.
Proof.
  intros s. induction s using stmt_ind2; intros c lc code lc' CF CS; cbn [stmt_cf] in CF; try discriminate.
  - apply andb_true_iff in CF as [_ CF].
    destruct (cs_substitute _ _ _ _ _ _ _ CS) as (c1 & lc1 & c2 & c3 & _ & _ & NX & ->). apply ends_nz_app, ends_nz_app. eauto.
  - destruct (cs_call _ _ _ _ _ _ _ CS) as (-> & _). apply (ends_nz_last []). cbn; lia.
  - destruct (stmt_cf_create v t env cls s CF) as (-> & NE & CFc & CFn).
    destruct (cs_create _ _ _ _ _ _ _ _ _ _ CS) as (rest & cenv & c1 & lc1 & tmpv & c3 & lc3 & c5 & _ & _ & _ & _ & CC & ->).
    apply ends_nz_app, ends_nz_app, ends_nz_app, ends_nz_app. eapply clauses_ends_nz; eauto.
  - destruct (cs_invoke _ _ _ _ _ _ _ _ _ CS) as (tmpv & d & _ & _ & _ & CD).
    destruct (Nat.leb (List.length (txtors d)) 1).
    + subst code. destruct tmpv; cbn [a_jump]; [apply (ends_nz_last [])|apply (ends_nz_last [_])]; cbn; lia.
    + destruct CD as (k & _ & ->). destruct tmpv; cbn [a_add_and_jump]; [apply ends_nz_last|apply ends_nz_app, ends_nz_last]; cbn; lia.
  - destruct (cs_literal _ _ _ _ _ _ _ _ CS) as (tv & c2 & _ & NX & ->). apply ends_nz_app. eauto.
  - destruct (cs_op _ _ _ _ _ _ _ _ _ _ CS) as (tv & ta & tb & c2 & _ & _ & _ & NX & ->). apply ends_nz_app. eauto.
  - destruct (cs_print _ _ _ _ _ _ _ _ CS) as (tv & c2 & _ & NX & ->). apply ends_nz_app. eauto.
  - apply andb_true_iff in CF as [CF1 CF2].
    destruct (cs_ifc _ _ _ _ _ _ _ _ _ _ CS) as (ta & c1 & c2 & lc2 & c3 & _ & _ & _ & TH & ->).
    apply ends_nz_app, ends_nz_app, ends_nz_app. eauto.
  - destruct (cs_exit _ _ _ _ _ _ CS) as (tv & _ & -> & _). apply ends_nz_last. cbn; lia.
Qed.

(* the labels and directives a piece of code starts with *)
Fixpoint lead (cs : list acode) : nat :=
  match cs with [] => O | c :: r => if isize c =? 0 then S (lead r) else O end.
Lemma lead_spec : forall cs, ends_nz cs ->
  exists c, nth_error cs (lead cs) = Some c /\ 0 < isize c /\ size_of (firstn (lead cs) cs) = 0.
Proof.
  induction cs as [|c0 r IH]; intros (pre & c & E & SZ); [destruct pre; discriminate|].
  cbn [lead]. destruct (Z.eqb_spec (isize c0) 0) as [Z0|NZ].
  - assert (ER : ends_nz r).
    { destruct pre as [|p0 pre]; cbn [app] in E; inversion E; subst; [lia|]. exists pre, c. auto. }
    destruct (IH ER) as (c1 & N1 & S1 & F1). exists c1. cbn [nth_error firstn size_of]. rewrite F1. repeat split; auto. lia.
  - exists c0. cbn [nth_error firstn size_of]. pose proof (isize_nonneg c0). repeat split; auto. lia.
Qed.

(* where clause k sits in the clause code *)
Lemma clauses_code_nth types env fresh : forall cls lc c5 lc' k x cx body,
  clauses_code types env fresh cls lc = Ok (c5, lc') -> nth_error cls k = Some (x, cx, body) ->
  exists pre lc0 cl lc1 cb lc2 post,
    c5 = pre ++ [LAB (fresh +++ "_" +++ show_ident x)] ++ cl ++ cb ++ post /\
    a_load env cx lc0 = Ok (cl, lc1) /\ acs types body (cx ++ env) lc1 = Ok (cb, lc2) /\ (k = O -> pre = []).
Proof. exact (BackendInv.clauses_code_nth a64_backend types env fresh). Qed.

Lemma code_table_nth cls fresh k c :
  nth_error cls k = Some c -> nth_error (code_table a64_backend cls fresh) k = Some (B (fresh +++ "_" +++ show_ident (cl_xtor c))).
Proof.
  unfold code_table. cbn [b_jump_label_fixed a64_backend a64_backend_with]. revert k.
  induction cls as [|c0 r IH]; intros k H; [destruct k; discriminate|]. cbn [flat_map app].
  destruct k as [|k]; cbn [nth_error] in *; [inversion H; reflexivity|auto].
Qed.
Lemma code_table_length cls fresh : List.length (code_table a64_backend cls fresh) = List.length cls.
Proof. unfold code_table. cbn [b_jump_label_fixed a64_backend a64_backend_with]. induction cls; cbn; auto. Qed.
Lemma code_table_size cls fresh : forall k, (k <= List.length cls)%nat -> size_of (firstn k (code_table a64_backend cls fresh)) = 4 * Z.of_nat k.
Proof.
  unfold code_table. cbn [b_jump_label_fixed a64_backend a64_backend_with].
  induction cls as [|c0 r IH]; intros k H; cbn [List.length] in H.
  - destruct k; [reflexivity|lia].
  - destruct k as [|k]; [reflexivity|]. cbn [flat_map app firstn size_of isize]. rewrite IH by lia. lia.
Qed.

Lemma size_of_app a b : size_of (a ++ b) = size_of a + size_of b.
Proof. induction a as [|c a IH]; cbn [app size_of]; [reflexivity|]. rewrite IH. lia. Qed.
Lemma a_load_nil cx lc : a_load [] cx lc = Ok ([], lc).
Proof. reflexivity. Qed.
Lemma a_store_nil c lc : a_store [] c lc = dor t <- a_fresh Fst c; Ok (a_load_immediate t 0, lc).
Proof. reflexivity. Qed.
Lemma wrap_small_range z : 0 <= z < 4611686018427387904 -> wrap z = z.
Proof. intros H. apply wrap_in64. unfold min_int, max_int, two63. lia. Qed.

Section Clo.
Variable im : image.
Variable p : prog.
Hypothesis IMG : img_ok im.
Hypothesis SMALL : forall pc a, PM.find pc (addr_of im) = Some a -> a < 4611686018427387904.

(* the static facts the simulation needs about a clause *)
Definition clause_static (c : clause) : Prop :=
  lin_check (sigs_of p) (cl_ctx c) (cl_body c) = true /\ stmt_cf (cl_body c) = true /\ ctx_cf (cl_ctx c) = true /\
  stmt_lits (cl_body c) = true.

(* what the second temporary of a closure variable points to: clause k of a closure whose clauses are the
   declared destructors in declaration order is entered, by an indirect branch to a (one clause) or to
   a + 4k (jump table), at an index i from which every run continues like from the code generated for its body
   (i is the first real instruction of the body resp. the table entry `B clause_label`), with the state
   unchanged; the body is linearly well-typed in the clause context and belongs to the fragment *)
Definition clo_ok (a : Z) (tn : ident) (cls : list clause) : Prop :=
  cls_ok (sigs_of p) (Decl tn) cls = true /\ 0 <= a /\
  forall k c, nth_error cls k = Some c ->
    exists i pcb lcb cb lcb',
      a + (if Nat.leb (List.length cls) 1 then 0 else jump_length (N.of_nat k)) < 4611686018427387904 /\
      PM.find (key (a + (if Nat.leb (List.length cls) 1 then 0 else jump_length (N.of_nat k)))) (index_at im) = Some i /\
      (forall s o, finishes im pcb s o -> finishes im i s o) /\
      acs (ptypes p) (cl_body c) (cl_ctx c) lcb = Ok (cb, lcb') /\ code_at im pcb cb /\ labels_at_nh im pcb cb /\
      clause_static c.

Lemma table_entry pcl fresh cls R a :
  code_at im pcl ([LAB fresh] ++ code_table a64_backend cls fresh ++ R) ->
  PM.find pcl (addr_of im) = Some a ->
  forall k, (k < List.length cls)%nat ->
    PM.find (padd pcl (1 + k)) (addr_of im) = Some (a + 4 * Z.of_nat k) /\
    PM.find (key (a + 4 * Z.of_nat k)) (index_at im) = Some (padd pcl (1 + k)).
Proof.
  intros CA A k Hk.
  set (tb := code_table a64_backend cls fresh) in *.
  assert (LT : List.length tb = List.length cls) by apply code_table_length.
  destruct (nth_error cls k) as [ck|] eqn:Ek; [|apply nth_error_None in Ek; lia].
  pose proof (code_table_nth cls fresh k ck Ek) as Et. fold tb in Et.
  assert (NTH : nth_error ([LAB fresh] ++ tb ++ R) (1 + k) = Some (B (fresh +++ "_" +++ show_ident (cl_xtor ck)))).
  { cbn [app Nat.add nth_error]. rewrite nth_error_app1; [exact Et|]. apply nth_error_Some. congruence. }
  assert (ADDR : PM.find (padd pcl (1 + k)) (addr_of im) = Some (a + 4 * Z.of_nat k)).
  { rewrite (addr_along im IMG _ pcl a CA A (1 + k) _ NTH).
    f_equal. cbn [app Nat.add firstn size_of isize]. rewrite firstn_app.
    replace (k - List.length tb)%nat with O by lia. cbn [firstn]. rewrite app_nil_r.
    unfold tb. rewrite code_table_size by lia. lia. }
  split; [exact ADDR|].
  apply (io_index im IMG _ (B (fresh +++ "_" +++ show_ident (cl_xtor ck)))); [apply CA; exact NTH|cbn; lia|exact ADDR].
Qed.

(* the closure code a Create statement emits establishes clo_ok for the address of its label *)
Lemma create_layout pc P fresh tn cls c5 lc3 lc5 :
  code_at im pc (P ++ ([LAB fresh] ++ table_or_nil cls fresh) ++ c5) ->
  labels_at_nh im pc (P ++ ([LAB fresh] ++ table_or_nil cls fresh) ++ c5) ->
  hash_name fresh = false ->
  clauses_code (ptypes p) [] fresh cls lc3 = Ok (c5, lc5) ->
  cls <> [] -> cls_ok (sigs_of p) (Decl tn) cls = true ->
  (forall c, In c cls -> clause_static c) ->
  exists a, label_addr im fresh = Some a /\ clo_ok a tn cls.
Proof.
  intros CA LA NH CC NE CO ST.
  (* the label and its address *)
  pose proof CA as CA'. apply code_at_app in CA' as [_ CAl]. set (pcl := padd pc (List.length P)) in *.
  rewrite <- app_assoc in CAl. pose proof CAl as CAl'. apply code_at_cons in CAl' as [CL _].
  destruct (io_addr im IMG pcl _ CL) as (a & AL & GE).
  assert (FL : find_label (labels im) fresh = Some pcl).
  { apply (LA (List.length P) fresh); [|exact NH]. apply nth_error_mid. }
  exists a. split; [exact (label_addr_at im fresh pcl a FL AL)|].
  split; [exact CO|]. split; [unfold CODE_BASE in GE; lia|].
  intros k c Hk.
  destruct c as [[x cx] body].
  destruct (clauses_code_nth _ _ _ _ _ _ _ k x cx body CC Hk) as (pre5 & lc0 & cl & lc1 & cb & lc2 & post5 & E5 & LD & BD & PRE0).
  rewrite a_load_nil in LD. inversion LD; subst cl lc1. rewrite app_nil_r in BD. cbn [app] in E5.
  pose proof (ST _ (nth_error_In _ _ Hk)) as STk. pose proof STk as (S1 & S2 & S3 & S4). cbn [cl_ctx cl_body fst snd] in *.
  assert (Lk : (k < List.length cls)%nat) by (apply nth_error_Some; congruence).
  (* position of the clause label and of the body *)
  set (tb := table_or_nil cls fresh) in *.
  set (lx := fresh +++ "_" +++ show_ident x) in *.
  assert (CODE : code_at im pcl ([LAB fresh] ++ tb ++ pre5 ++ [LAB lx] ++ cb ++ post5)).
  { rewrite E5 in CAl. exact CAl. }
  assert (LABS : labels_at_nh im pcl ([LAB fresh] ++ tb ++ pre5 ++ [LAB lx] ++ cb ++ post5)).
  { apply labels_at_nh_app in LA as [_ LA]. fold pcl in LA. rewrite <- app_assoc, E5 in LA. exact LA. }
  set (jl := (1 + List.length tb + List.length pre5)%nat).
  assert (NL : nth_error ([LAB fresh] ++ tb ++ pre5 ++ [LAB lx] ++ cb ++ post5) jl = Some (LAB lx)).
  { unfold jl. cbn [app Nat.add nth_error]. rewrite nth_error_app2 by lia. rewrite nth_error_app2 by lia.
    replace (_ - _ - _)%nat with O by lia. reflexivity. }
  pose proof (code_at_nth im pcl _ jl _ CODE NL) as CLx.
  pose proof (LABS jl _ NL (hash_name_sub fresh (show_ident x) NH)) as FLx.
  assert (CB : code_at im (padd pcl (S jl)) cb /\ labels_at_nh im (padd pcl (S jl)) cb).
  { replace (S jl) with (List.length ([LAB fresh] ++ tb ++ pre5 ++ [LAB lx])) by (unfold jl; rewrite !app_length; cbn [List.length]; lia).
    apply (placed_mid im pcl _ _ cb post5 CODE LABS). rewrite <- !app_assoc. reflexivity. }
  destruct CB as [CB LB].
  destruct (Nat.leb (List.length cls) 1) eqn:LE.
  - (* a single clause, no table: the label of the closure is followed by the label of the clause, and
       BR lands on the first real instruction of the body *)
    assert (TB : tb = []) by (unfold tb, table_or_nil; now rewrite LE).
    assert (K0 : k = O) by (apply Nat.leb_le in LE; lia). subst k.
    assert (P5 : pre5 = []) by (apply PRE0; reflexivity).
    assert (J1 : jl = 1%nat) by (unfold jl; rewrite TB, P5; reflexivity).
    rewrite J1 in CB, LB. cbn [padd] in CB, LB.
    destruct (lead_spec cb (cs_ends_nz _ _ _ _ _ _ S2 BD)) as (c1 & N1 & SZ1 & F1).
    assert (L1 : (lead cb < List.length cb)%nat) by (apply nth_error_Some; congruence).
    exists (padd pcl (2 + lead cb)), (Pos.succ (Pos.succ pcl)), lc0, cb, lc2.
    rewrite Z.add_0_r. split; [exact (SMALL pcl a AL)|]. split.
    { rewrite TB, P5 in CODE. cbn [app] in CODE.
      apply (land im IMG _ pcl a (2 + lead cb) c1 CODE AL).
      - cbn [Nat.add firstn size_of isize]. rewrite firstn_app, size_of_app, F1.
        replace (lead cb - List.length cb)%nat with O by lia. cbn [firstn size_of]. lia.
      - cbn [Nat.add nth_error]. rewrite nth_error_app1 by exact L1. exact N1.
      - exact SZ1. }
    split; [|repeat split; auto].
    intros s o FIN.
    assert (CBp : code_at im (Pos.succ (Pos.succ pcl)) (firstn (lead cb) cb)).
    { rewrite <- (firstn_skipn (lead cb) cb) in CB. apply code_at_app in CB as [CB1 _]. exact CB1. }
    pose proof (finishes_skip im _ _ s o CBp F1 FIN) as FS.
    rewrite firstn_length_le in FS by lia. cbn [Nat.add padd]. exact FS.
  - (* the jump table *)
    assert (TB : tb = code_table a64_backend cls fresh) by (unfold tb, table_or_nil; now rewrite LE).
    rewrite TB in CODE.
    destruct (table_entry pcl fresh cls _ a CODE AL k Lk) as (ADk & IXk).
    exists (padd pcl (1 + k)), (padd pcl (S jl)), lc0, cb, lc2.
    unfold jump_length. rewrite nat_N_Z.
    split; [exact (SMALL _ _ ADk)|]. split; [exact IXk|]. split; [|repeat split; auto].
    intros s o FIN.
    assert (CJ : PM.find (padd pcl (1 + k)) (code im) = Some (B lx)).
    { apply CODE. cbn [app Nat.add nth_error]. rewrite nth_error_app1 by (rewrite code_table_length; lia).
      apply (code_table_nth cls fresh k (x, cx, body) Hk). }
    eapply exec_to_finishes; [|exact FIN].
    eapply exec_jump; [exact CJ|cbn [step]; unfold goto_label; rewrite FLx; reflexivity|].
    eapply exec_next; [exact CLx|reflexivity|]. rewrite <- padd_succ. apply exec_refl.
Qed.
End Clo.

Section Clo2.
Variable im : image.
Variable p : prog.
Hypothesis IMG : img_ok im.
Hypothesis SMALL : forall pc a, PM.find pc (addr_of im) = Some a -> a < 4611686018427387904.
Local Notation clo_ok := (clo_ok im p).
Local Notation rel := (rel clo_ok).

Theorem sim_create c e s sp v tn cls next lc code lc' pc :
  rel c e s sp -> NoDup (ids (c ++ [mkb v Cns (Decl tn)])) ->
  acs (ptypes p) (Create v (Decl tn) (Some []) cls next) c lc = Ok (code, lc') ->
  code_at im pc code -> labels_at_nh im pc code ->
  hash_name (type_label (Decl tn) (lc + 1)%N) = false ->
  cls <> [] -> cls_ok (sigs_of p) (Decl tn) cls = true ->
  (forall cl, In cl cls -> clause_static p cl) ->
  exists c12 c3 lc3 rest s',
    code = c12 ++ c3 ++ rest /\
    acs (ptypes p) next (c ++ [mkb v Cns (Decl tn)]) (lc + 1)%N = Ok (c3, lc3) /\
    run_straight im c12 s = MOk s' /\
    rel (c ++ [mkb v Cns (Decl tn)]) (e ++ [(v, VClo tn cls [])]) s' sp /\ frame_eq s s' sp.
Proof.
  intros R ND CS CA LA NH NE CO ST.
  destruct (cs_create _ _ _ _ _ _ _ _ _ _ CS) as (rest & cenv & c1 & lc1 & tmpv & c3 & lc3 & c5 & SL & STO & TV & NX & CC & ->).
  cbn [List.length] in SL. rewrite split_last0 in SL. inversion SL; subst rest cenv. clear SL.
  rewrite a_store_nil in STO. destruct (a_fresh Fst c) as [t1|] eqn:T1; cbn [rbind] in STO; [|discriminate].
  inversion STO; subst c1 lc1. clear STO.
  assert (T1' : atpos Fst (List.length c) = Ok t1) by exact T1.
  assert (T2 : atpos Snd (List.length c) = Ok tmpv).
  { rewrite <- TV. symmetry. change (idn v) with (idn (bvar (mkb v Cns (Decl tn)))). apply vt_tpos; auto. apply nth_error_mid. }
  set (fresh := type_label (Decl tn) (lc + 1)%N) in *.
  (* the closure's code *)
  destruct (create_layout im p IMG SMALL pc (a_load_immediate t1 0 ++ a_load_label tmpv fresh ++ c3) fresh tn cls c5 lc3 lc') as (a & LAD & CLO); auto.
  { rewrite <- !app_assoc. exact CA. }
  { rewrite <- !app_assoc. exact LA. }
  (* the two instruction sequences *)
  pose proof (rel_frame R) as F.
  destruct (atpos_ok _ _ _ T1') as ((O1 & _) & NF1 & _). destruct (atpos_ok _ _ _ T2) as ((O2 & _) & NF2 & _).
  destruct (a64_load_immediate_ok im s sp t1 0 F O1 in64_0) as (s1 & E1 & V1 & P1).
  destruct P1 as (PR1 & _ & _ & _ & F1).
  destruct (a64_load_label_ok im s1 sp tmpv fresh a F1 O2 LAD) as (s2 & E2 & V2 & P2).
  destruct P2 as (PR2 & _ & _ & _ & F2).
  assert (NE12 : t1 <> tmpv).
  { intros E; subst. destruct (tpos_inj a64_backend a64_backend_ok _ _ _ _ _ T1' T2) as [X _]. discriminate. }
  exists (a_load_immediate t1 0 ++ a_load_label tmpv fresh), c3, lc3, (([LAB fresh] ++ table_or_nil cls fresh) ++ c5), s2.
  split; [rewrite <- !app_assoc; reflexivity|]. split; [exact NX|].
  split; [rewrite run_straight_app, E1; exact E2|].
  assert (KEEP : forall l, loc_ok l -> l <> AR TEMP -> l <> AR TEMP2 -> l <> t1 -> l <> tmpv -> lget s2 sp l = lget s sp l).
  { intros l Ll Nl Nl2 A1 A2. rewrite PR2 by auto. apply PR1; auto. }
  split.
  - apply (rel_extend clo_ok c e s s2 sp (mkb v Cns (Decl tn)) (VClo tn cls []) R ND F2).
    + destruct free_operand as (A & B & C & _). apply (KEEP (AR FREE)); auto; congruence.
    + intros i n t0 Li T0. destruct (atpos_ok _ _ _ T0) as (((A & B & C) & _) & _).
      apply KEEP; auto; [apply (atpos_other _ _ _ _ _ _ T0 T1')|apply (atpos_other _ _ _ _ _ _ T0 T2)]; lia.
    + apply (vrep_clo clo_ok s2 sp (List.length c) (mkb v Cns (Decl tn)) tn cls a t1 tmpv); auto.
      destruct O1 as (A & B & C). rewrite PR2; auto.
  - assert (LC : local_code (a_load_immediate t1 0 ++ a_load_label tmpv fresh) = true).
    { rewrite local_code_app, local_load_immediate, local_load_label by (apply loc_ok_lok; first [apply O1|apply O2]). reflexivity. }
    eapply run_straight_local; [exact LC|exact F|]. rewrite run_straight_app, E1. exact E2.
Qed.

Lemma rel_prefix c0 b e0 ev s sp : rel (c0 ++ [b]) (e0 ++ [ev]) s sp -> rel c0 e0 s sp.
Proof.
  intros R. pose proof (rel_length R) as LEN. rewrite !app_length in LEN. cbn [List.length] in LEN.
  destruct R as [F Ro Fr Ids ND Vals]. split; auto.
  - unfold env_ids, ids in *. rewrite !map_app in Ids. cbn [map] in Ids. apply app_inj_tail in Ids. tauto.
  - unfold ids in *. rewrite map_app in ND. eapply NoDup_app_head; eauto.
  - intros i x v Hi. assert (Li : (i < List.length e0)%nat) by (apply nth_error_Some; congruence).
    destruct (Vals i x v) as (b' & Hb' & V); [rewrite nth_error_app1 by exact Li; exact Hi|].
    exists b'. split; [|exact V]. rewrite nth_error_app1 in Hb' by lia. exact Hb'.
Qed.

(* an indirect branch goes through a register: the temporary itself, or X2 loaded from its spill slot
   (operand_reg / operand_load of Proof/A64Sel.v with scratch register TEMP) *)
Local Notation via := (operand_reg TEMP).
Local Notation fetch := (operand_load TEMP).
Lemma a_jump_via t : a_jump t = fetch t ++ [BR (via t)].
Proof. destruct t; reflexivity. Qed.
Lemma a_add_and_jump_via t i : a_add_and_jump t i = fetch t ++ add_offset (via t) i ++ [BR (via t)].
Proof. destruct t; reflexivity. Qed.
Lemma via_reg t : loc_ok t -> t <> AR TEMP2 -> t <> AR FREE -> exists n, via t = X n /\ gp (X n) /\ n <> 3%N /\ n <> 1%N.
Proof.
  destruct t as [[n| |]|q]; cbn [operand_reg loc_ok gp]; intros L N2 NF; try tauto.
  - exists n. repeat split; auto; intros ->; [apply N2|apply NF]; reflexivity.
  - exists 2%N. repeat split; discriminate.
Qed.
Lemma via_other t l : l <> AR TEMP -> l <> t -> l <> AR (via t).
Proof. destruct t; cbn [operand_reg]; auto. Qed.
Lemma fetch_ok s sp t a :
  frame_ok s sp -> loc_ok t -> lget s sp t = Some a ->
  exists s0, run_straight im (fetch t) s = MOk s0 /\ rget s0 (via t) = Some a /\ frame_ok s0 sp /\ frame_eq s s0 sp /\
    rget s0 FREE = rget s FREE /\ forall l, loc_ok l -> l <> AR TEMP -> lget s0 sp l = lget s sp l.
Proof.
  intros F L V. destruct (operand_load_ok im s sp TEMP t F L I) as (s0 & E0 & V0 & (K0 & _ & _ & _ & F0)).
  exists s0. split; [exact E0|]. split; [congruence|]. split; [exact F0|].
  split; [apply (run_straight_local im (fetch t) s sp s0); [destruct t; reflexivity|exact F|exact E0]|].
  split; [apply (K0 (AR FREE)); [exact I|intros [E|[]]; discriminate]|].
  intros l Ll Nl. apply K0; [exact Ll|intros [E|[]]; congruence].
Qed.

Theorem sim_invoke c e s sp v tag t args code lc lc' pc e0 x tn cls ce cl e1 :
  rel c e s sp ->
  AxSem.split_last 1 e = Some (e0, [(x, VClo tn cls ce)]) -> N.eqb (idn x) (idn v) = true ->
  find_clause cls tag = Some cl -> bind (vars (cl_ctx cl)) (map snd e0) = Some e1 ->
  lin_check (sigs_of p) c (Invoke v tag t args) = true ->
  acs (ptypes p) (Invoke v tag t args) c lc = Ok (code, lc') -> code_at im pc code ->
  exists i pcb lcb cb lcb' s',
    exec_to im pc s i s' /\ (forall o, finishes im pcb s' o -> finishes im i s' o) /\
    acs (ptypes p) (cl_body cl) (cl_ctx cl) lcb = Ok (cb, lcb') /\ code_at im pcb cb /\ labels_at_nh im pcb cb /\
    clause_static p cl /\
    rel (cl_ctx cl) (e1 ++ ce) s' sp /\ frame_eq s s' sp.
Proof.
  intros R SL IDX FC BD LC CS CA.
  apply split_last1_inv in SL. subst e.
  pose proof (rel_length R) as LEN. rewrite app_length in LEN. cbn [List.length] in LEN.
  (* the typing side: the context ends with the closure variable *)
  cbn [lin_check] in LC. apply andb_true_iff in LC as [_ LC].
  destruct (split_lastn 1 c) as [[c0 [|b [|b' r]]]|] eqn:SLc; try discriminate.
  apply split_lastn_Some in SLc as [-> _].
  apply andb_true_iff in LC as [LC AO]. apply andb_true_iff in LC as [LC TY]. apply andb_true_iff in LC as [IDb CH].
  apply N.eqb_eq in IDb. apply ty_eqb_eq in TY. apply chi_eqb_eq in CH.
  assert (L0 : List.length e0 = List.length c0) by (rewrite app_length in LEN; cbn [List.length] in LEN; lia).
  (* the closure's representation *)
  destruct (rel_vals R (List.length e0) x (VClo tn cls ce)) as (b0 & Hb0 & V); [apply nth_error_mid|].
  rewrite L0, nth_error_mid in Hb0. inversion Hb0; subst b0. clear Hb0.
  inversion V as [|b1 tn1 cls1 a t1 t2 K1 K2 T1 T2 V1 V2 CLO]; subst. clear V.
  destruct CLO as (CO & AB & ENTRY).
  (* the temporary the generator jumps through *)
  destruct (cs_invoke _ _ _ _ _ _ _ _ _ CS) as (tmpv & d & TV & LT & _ & CODE).
  assert (TVeq : tmpv = t2).
  { rewrite <- IDb in TV. rewrite (vt_of_nth0 (c0 ++ [b]) (List.length c0) b (rel_nodup R) (nth_error_mid _ _ _)) in TV.
    rewrite L0 in T2. congruence. }
  subst tmpv.
  (* the declaration and the position of the clause *)
  rewrite K2 in *. unfold cls_ok, type_xtors in CO. cbn [sigs_of sg_types] in CO.
  unfold lookup_type in LT.
  destruct (find (fun d => ident_eqb (tname d) tn) (ptypes p)) as [d'|] eqn:FD; [|discriminate]. inversion LT; subst d'. clear LT.
  destruct (find_clause_pos cls (txtors d) tag cl 0%N CO FC) as (k & xk & Hk & Hxk & XP & FX & SMk).
  pose proof (cls_sig_length _ _ CO) as LCL.
  destruct (ENTRY k cl Hk) as (i & pcb & lcb & cb & lcb' & SM & IX & ARR & CSb & CAb & LAb & STA).
  (* the new environment *)
  pose proof (rel_frame R) as F.
  assert (T2' : atpos Snd (List.length c0) = Ok t2) by (rewrite <- L0; exact T2).
  destruct (atpos_ok _ _ _ T2') as (((Lt2 & Nt2 & Nt22) & _) & NFt2 & _).
  assert (R1 : forall s', frame_ok s' sp -> rget s' FREE = rget s FREE ->
             (forall l, loc_ok l -> l <> AR TEMP -> l <> AR TEMP2 -> l <> t2 -> lget s' sp l = lget s sp l) ->
             rel (cl_ctx cl) (e1 ++ []) s' sp).
  { intros s' F' FR' KEEP. rewrite app_nil_r.
    assert (R0 : rel c0 e0 s' sp).
    { apply (rel_keep clo_ok c0 e0 s s' sp (rel_prefix c0 b e0 _ s sp R) F' FR'). intros j bj n tj Hj AL Tj.
      destruct (atpos_ok _ _ _ Tj) as (((A & B & B2) & _) & _). apply KEEP; auto.
      assert (Lj : (j < List.length c0)%nat) by (apply nth_error_Some; congruence).
      apply (atpos_other _ _ _ _ _ _ Tj T2'). lia. }
    refine (bind_rel clo_ok c0 e0 s' sp (cl_ctx cl) e1 R0 _ _ BD).
    - destruct STA as (S1 & _). exact (lin_nodup _ _ _ S1).
    - unfold args_ok, lookup_xtor, type_xtors in AO. cbn [sigs_of sg_types] in AO. rewrite FD, FX in AO.
      eapply sig_match_join; eauto. }
  (* the jump: the code pointer reaches a register, the table offset is added to it, BR lands on index i *)
  set (off := if Nat.leb (List.length cls) 1 then 0 else jump_length (N.of_nat k)) in *.
  destruct (fetch_ok s sp t2 a F Lt2 V2) as (s0 & E0 & V0 & F0 & FE0 & FR0 & K0).
  assert (GO : forall s1, rget s1 (via t2) = Some (a + off) -> step im (BR (via t2)) s1 = Jump s1 i).
  { intros s1 RG. cbn [step]. unfold need. rewrite RG. unfold goto_addr. now rewrite IX. }
  exists i, pcb, lcb, cb, lcb'.
  assert (FIN : forall s', exec_to im pc s i s' -> rel (cl_ctx cl) (e1 ++ []) s' sp -> frame_eq s s' sp ->
           exists s'0, exec_to im pc s i s'0 /\ (forall o, finishes im pcb s'0 o -> finishes im i s'0 o) /\
             acs (ptypes p) (cl_body cl) (cl_ctx cl) lcb = Ok (cb, lcb') /\ code_at im pcb cb /\ labels_at_nh im pcb cb /\
             clause_static p cl /\ rel (cl_ctx cl) (e1 ++ []) s'0 sp /\ frame_eq s s'0 sp).
  { intros s' X RR FE. exists s'. split; [exact X|]. split; [intros o; apply ARR|]. split; [exact CSb|]. split; [exact CAb|].
    split; [exact LAb|]. split; [exact STA|]. split; [exact RR|exact FE]. }
  rewrite <- LCL in CODE. subst off. destruct (Nat.leb (List.length cls) 1) eqn:LE.
  - (* one destructor *)
    subst code. rewrite Z.add_0_r in GO. rewrite a_jump_via in CA. apply code_at_app in CA as [CA0 CJ]. apply code_at_cons in CJ as [CJ _].
    apply (FIN s0); [|apply R1; auto|exact FE0].
    eapply exec_to_trans; [apply (run_straight_exec_to im _ pc s s0 CA0 E0)|].
    eapply exec_jump; [exact CJ|apply GO; exact V0|apply exec_refl].
  - (* several destructors: the table offset is added first *)
    destruct CODE as (k' & XP' & ->). assert (k' = N.of_nat k) by (rewrite XP in XP'; inversion XP'; lia). subst k'.
    set (off := jump_length (N.of_nat k)) in *.
    assert (OFF : 0 <= off) by (unfold off, jump_length; lia).
    assert (W : wrap (a + off) = a + off) by (apply wrap_small_range; lia).
    assert (IV : add_imm_fits off = false -> in64 off) by (intros _; unfold in64, two63; lia).
    rewrite a_add_and_jump_via in CA. apply code_at_app in CA as [CA0 CA]. apply code_at_app in CA as [CA1 CJ].
    apply code_at_cons in CJ as [CJ _].
    destruct (via_reg t2 Lt2 Nt22 NFt2) as (n & EV & G & N3 & N1). rewrite EV in *.
    destruct (a64_add_offset_ok im s0 n off a G N3 V0 IV) as (s1 & RS & VJ & KP & Hsp & Hh & Hst & Ho).
    rewrite W in VJ.
    apply (FIN s1).
    + eapply exec_to_trans; [apply (run_straight_exec_to im _ pc s s0 CA0 E0)|].
      eapply exec_to_trans; [apply (run_straight_exec_to im _ _ s0 s1 CA1 RS)|].
      eapply exec_jump; [exact CJ|apply GO; exact VJ|apply exec_refl].
    + apply R1; [split; [rewrite Hsp; apply F0|apply F]| |].
      * rewrite <- FR0. change FREE with (X 1). cbn [rget]. apply KP; [congruence|discriminate].
      * intros l Ll Nl N2 Nt. rewrite <- (K0 l Ll Nl). pose proof (via_other t2 l Nl Nt) as NV. rewrite EV in NV.
        destruct l as [[m| |]|ql]; cbn [loc_ok gp] in Ll; try tauto; cbn [lget rget].
        -- apply KP; [congruence|]. intros ->. apply N2. rewrite TEMP2_is. reflexivity.
        -- unfold sget. rewrite Hst. reflexivity.
    + apply (frame_eq_trans s s0 s1 sp FE0). split; [exact Hh|]. split; [exact Ho|]. intros kk _. rewrite Hst. reflexivity.
Qed.

(* progress at Invoke: under the relation a linearly well-typed invoke finds its closure, its clause and
   its arguments *)
Lemma invoke_progress c e s sp v tag t args :
  rel c e s sp -> lin_check (sigs_of p) c (Invoke v tag t args) = true ->
  exists e0 x tn cls cl e1,
    AxSem.split_last 1 e = Some (e0, [(x, VClo tn cls [])]) /\ N.eqb (idn x) (idn v) = true /\
    find_clause cls tag = Some cl /\ bind (vars (cl_ctx cl)) (map snd e0) = Some e1.
Proof.
  intros R LC. pose proof (rel_length R) as LEN.
  cbn [lin_check] in LC. apply andb_true_iff in LC as [_ LC].
  destruct (split_lastn 1 c) as [[c0 [|b [|b' r]]]|] eqn:SLc; try discriminate.
  apply split_lastn_Some in SLc as [-> _].
  apply andb_true_iff in LC as [LC AO]. apply andb_true_iff in LC as [LC TY]. apply andb_true_iff in LC as [IDb CH].
  apply N.eqb_eq in IDb. apply ty_eqb_eq in TY. apply chi_eqb_eq in CH.
  rewrite app_length in LEN. cbn [List.length] in LEN.
  (* the environment ends with the closure *)
  destruct (exists_last (l := e)) as (e0 & [x val] & ->); [intros ->; cbn in LEN; lia|].
  rewrite app_length in LEN. cbn [List.length] in LEN.
  assert (L0 : List.length e0 = List.length c0) by lia.
  destruct (rel_vals R (List.length e0) x val) as (b0 & Hb0 & V); [apply nth_error_mid|].
  rewrite L0, nth_error_mid in Hb0. inversion Hb0; subst b0. clear Hb0.
  inversion V as [? z ? K1 ?|b1 tn cls a t1 t2 K1 K2 T1 T2 V1 V2 CLO]; subst; [congruence|]. clear V.
  destruct CLO as (CO & _ & ENTRY).
  assert (IDX : idn x = idn v).
  { pose proof (rel_ids R) as Ids. unfold env_ids, ids in Ids. rewrite !map_app in Ids. cbn [map fst] in Ids.
    apply app_inj_tail in Ids as [_ E]. congruence. }
  rewrite K2 in *. unfold cls_ok, type_xtors in CO. cbn [sigs_of sg_types] in CO.
  unfold args_ok, lookup_xtor, type_xtors in AO. cbn [sigs_of sg_types] in AO.
  destruct (find (fun d => ident_eqb (tname d) tn) (ptypes p)) as [d|] eqn:FD; [|discriminate].
  destruct (find (fun x => ident_eqb (xname x) tag) (txtors d)) as [xk|] eqn:FX; [|discriminate].
  destruct (find_clause_total cls (txtors d) tag xk CO FX) as (cl & FC).
  destruct (find_clause_pos cls (txtors d) tag cl 0%N CO FC) as (k & xk' & Hk & Hxk & XP & FX' & SMk).
  assert (xk' = xk) by congruence. subst xk'.
  destruct (bind_total (vars (cl_ctx cl)) (map snd e0)) as (e1 & BD).
  { apply sig_match_iff, same_kt_length in AO. apply sig_match_iff, same_kt_length in SMk. unfold vars. rewrite !map_length. lia. }
  exists e0, x, tn, cls, cl, e1. split; [apply split_last1_app|]. split; [apply N.eqb_eq; exact IDX|]. auto.
Qed.
End Clo2.
