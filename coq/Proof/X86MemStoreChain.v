(* `x_store` of any number of variables (objects chained over several blocks, memory.rs store_fields)
   refines `Heap.alloc_object`:
     acq_ok                 what `acquire_block` needs of the allocator state, on the abstract state
                            (it follows from the heap invariant, room in the heap region and counts that
                            do not overflow; it is invariant under the block-wise equality);
     alloc_object_pre       acq_ok at every allocation of the chain (the abstract states in between are
                            determined by `Heap.alloc`);
     x86_store_block_ok     one round of store_fields: (link,) values, acquire = one `Heap.alloc`; the words
                            of the block, the heap words and the stack words that are left alone;
     x86_store_ok           x_store to_store remaining = Heap.alloc_object (fsts ...) for every length
                            (C09_x86_store).  It assumes `alloc_object_pre` only and has an induction of its own;
                            the theorem with the words of the new object and the frames, x86_store_frame
                            (Proof/X86MemStoreFull.v), assumes in addition that the acquired blocks are distinct,
                            so neither is a projection of the other. *)
From Coq Require Import List ZArith NArith String Bool Lia FMapPositive.
From SCC Require Import Base.Sexp Lang.AxSyn Sem.AxSem Model.Backend Model.X86 Sem.X86Sem Generated.Constants
  Proof.X86State Proof.X86Sel Proof.X86Mem Proof.X86MemFrame Proof.X86MemStore Proof.X86StackFrame.
From SCC Require Model.Heap.
Import ListNotations.
Open Scope list_scope.
Open Scope Z_scope.

Definition acq_ok (a : Heap.st) : Prop :=
  is_blk (Heap.heap a) /\ Heap.free a <> 0 /\
  (Heap.hdr (Heap.m a (Heap.heap a)) = 0 -> is_blk (Heap.free a)) /\
  (Heap.hdr (Heap.m a (Heap.heap a)) = 0 -> Heap.hdr (Heap.m a (Heap.free a)) <> 0 ->
     Forall (fun c => c = 0 \/ is_blk c) (Heap.ps (Heap.m a (Heap.free a))) /\
     (forall x, is_blk x -> min_int + 3 <= Heap.hdr (Heap.m a x) <= max_int) /\
     min_int + 3 <= Heap.hdr (Heap.m a (Heap.free a)) <= max_int).

Lemma acq_ok_eqB a b : st_eqB a b -> acq_ok a -> acq_ok b.
Proof.
  intros (E1 & E2 & E3 & E4) (A1 & A2 & A3 & A4). unfold acq_ok. rewrite <- E1, <- E2, <- (E4 _ A1).
  split; [exact A1|]. split; [exact A2|]. split; [exact A3|].
  intros H0. specialize (A3 H0). rewrite <- (E4 _ A3). intros Hn0. destruct (A4 H0 Hn0) as (K & B1 & B2).
  split; [exact K|]. split; [|exact B2]. intros x Hx. rewrite <- (E4 x Hx). now apply B1.
Qed.

Lemma acq_ok_machine F s :
  acq_ok (abs_heap F s) ->
  exists rv h2, rget s HEAP = Some rv /\ is_blk rv /\ rget s FREE = Some h2 /\
    (hword s rv = 0 -> is_blk h2) /\
    (hword s rv = 0 -> hword s h2 <> 0 ->
       (forall off, off = 16 \/ off = 32 \/ off = 48 -> hword s (h2 + off) = 0 \/ is_blk (hword s (h2 + off))) /\
       bounded 3 s (hword s h2)).
Proof.
  intros (A1 & A2 & A3 & A4). cbn [abs_heap Heap.heap Heap.free Heap.m] in *.
  unfold reg_or0 in *.
  destruct (rget s HEAP) as [rv|] eqn:RH; [|apply is_blk_pos in A1; lia].
  destruct (rget s FREE) as [h2|] eqn:RF; [|contradiction].
  exists rv, h2. split; [reflexivity|]. split; [exact A1|]. split; [reflexivity|]. split; [exact A3|].
  intros H0 Hn0. destruct (A4 H0 Hn0) as (K & B1 & B2). cbn [abs_mem Heap.ps Heap.hdr] in *. split; [|split; [exact B1|exact B2]].
  inversion K as [|? ? K1 K']; subst. inversion K' as [|? ? K2 K'']; subst. inversion K'' as [|? ? K3 _]; subst.
  intros off [->|[->| ->]]; assumption.
Qed.

(* allocation from two states that agree on the blocks except for the pointer slots of the block
   about to be filled *)
Lemma alloc_congr_ps a b P :
  Heap.heap a = Heap.heap b -> Heap.free a = Heap.free b -> Heap.frontier a = Heap.frontier b ->
  (forall x, is_blk x -> Heap.hdr (Heap.m a x) = Heap.hdr (Heap.m b x)) ->
  (forall x, is_blk x -> x <> Heap.heap a -> Heap.m a x = Heap.m b x) ->
  acq_ok a ->
  fst (Heap.alloc P a) = fst (Heap.alloc P b) /\ st_eqB (snd (Heap.alloc P a)) (snd (Heap.alloc P b)).
Proof.
  intros E1 E2 E3 Eh Em (A1 & A2 & A3 & A4). unfold Heap.alloc.
  set (A := {| Heap.m := Heap.set_ps (Heap.m a) (Heap.heap a) P; Heap.heap := Heap.heap a; Heap.free := Heap.free a; Heap.frontier := Heap.frontier a |}).
  set (B := {| Heap.m := Heap.set_ps (Heap.m b) (Heap.heap b) P; Heap.heap := Heap.heap b; Heap.free := Heap.free b; Heap.frontier := Heap.frontier b |}).
  assert (EAB : st_eqB A B).
  { split; [exact E1|]. split; [exact E2|]. split; [exact E3|]. intros x Hx. unfold A, B. cbn [Heap.m]. rewrite <- E1.
    unfold Heap.set_ps, Heap.upd. destruct (Z.eqb_spec x (Heap.heap a)) as [->|Hne]; [now rewrite Eh|now apply Em]. }
  assert (HA : Heap.hdr (Heap.m A (Heap.heap A)) = Heap.hdr (Heap.m a (Heap.heap a))).
  { unfold A. cbn [Heap.m Heap.heap]. unfold Heap.set_ps. now rewrite Heap.upd_same. }
  apply (acquire_st_eqB A B EAB).
  - exact A1.
  - rewrite HA. exact A3.
  - rewrite HA. intros H0. specialize (A3 H0). unfold A. cbn [Heap.m Heap.free Heap.heap].
    unfold Heap.set_ps, Heap.upd. destruct (Z.eqb_spec (Heap.free a) (Heap.heap a)) as [e|Hne].
    + cbn [Heap.hdr]. rewrite <- e at 1. rewrite e, H0. intros X; contradiction.
    + intros Hn0. now destruct (A4 H0 Hn0).
Qed.
Lemma alloc_congr a b P :
  st_eqB a b -> acq_ok a ->
  fst (Heap.alloc P a) = fst (Heap.alloc P b) /\ st_eqB (snd (Heap.alloc P a)) (snd (Heap.alloc P b)).
Proof.
  intros (E1 & E2 & E3 & E4) A. apply alloc_congr_ps; auto.
  - intros x Hx. now rewrite E4.
Qed.
Lemma alloc_fst P a : fst (Heap.alloc P a) = Heap.heap a.
Proof.
  unfold Heap.alloc, Heap.acquire. cbn [Heap.heap Heap.m Heap.free].
  destruct (negb _); [reflexivity|]. destruct (_ =? 0); reflexivity.
Qed.

Fixpoint chain_pre (fuel : nat) (rest : list Z) (link : Z) (a : Heap.st) : Prop :=
  match fuel with
  | O => True
  | S f =>
      match rest with
      | [] => True
      | _ => acq_ok a /\
             chain_pre f (Heap.butlastn 2 rest) (fst (Heap.alloc (Heap.pad 2 (Heap.lastn 2 rest) ++ [link]) a))
                       (snd (Heap.alloc (Heap.pad 2 (Heap.lastn 2 rest) ++ [link]) a))
      end
  end.
Definition alloc_object_pre (fields : list Z) (a : Heap.st) : Prop :=
  match fields with
  | [] => True
  | _ => acq_ok a /\
         chain_pre (List.length fields) (Heap.butlastn 3 fields) (fst (Heap.alloc (Heap.pad 3 (Heap.lastn 3 fields)) a))
                   (snd (Heap.alloc (Heap.pad 3 (Heap.lastn 3 fields)) a))
  end.

Lemma store_other_step f rest link a :
  rest <> [] ->
  Heap.store_other (S f) rest link a =
  Heap.store_other f (Heap.butlastn 2 rest) (fst (Heap.alloc (Heap.pad 2 (Heap.lastn 2 rest) ++ [link]) a))
                   (snd (Heap.alloc (Heap.pad 2 (Heap.lastn 2 rest) ++ [link]) a)).
Proof.
  intros H. cbn [Heap.store_other]. destruct rest; [contradiction|].
  destruct (Heap.alloc _ a) as [b a1]. reflexivity.
Qed.

Lemma store_other_congr : forall f rest link a b,
  st_eqB a b -> chain_pre f rest link a ->
  chain_pre f rest link b /\
  fst (Heap.store_other f rest link a) = fst (Heap.store_other f rest link b) /\
  st_eqB (snd (Heap.store_other f rest link a)) (snd (Heap.store_other f rest link b)).
Proof.
  induction f as [|f IH]; intros rest link a b E Pre.
  - cbn. auto.
  - destruct rest as [|x r]; [cbn; auto|].
    rewrite !store_other_step by discriminate. cbn [chain_pre] in *. destruct Pre as [A Pre].
    destruct (alloc_congr a b (Heap.pad 2 (Heap.lastn 2 (x :: r)) ++ [link]) E A) as [Ef Es].
    destruct (IH _ _ _ _ Es Pre) as (P' & F' & S'). rewrite <- Ef.
    split; [split; [eapply acq_ok_eqB; eauto|exact P']|]. split; [exact F'|exact S'].
Qed.

Lemma fsts_skipn val : forall k l E, (k <= List.length l)%nat -> fsts val (E + k) (skipn k l) = skipn k (fsts val E l).
Proof.
  induction k as [|k IH]; intros l E Hk; cbn [skipn]; [now rewrite Nat.add_0_r|].
  destruct l as [|b l]; [cbn in Hk; lia|]. cbn [fsts skipn List.length] in *.
  replace (E + S k)%nat with (S E + k)%nat by lia. apply IH. lia.
Qed.
Lemma fsts_firstn val : forall k l E, fsts val E (firstn k l) = firstn k (fsts val E l).
Proof.
  induction k as [|k IH]; intros l E; cbn [firstn]; [reflexivity|].
  destruct l as [|b l]; [reflexivity|]. cbn [fsts firstn]. now rewrite IH.
Qed.

(* the number of variables left for further blocks, as computed by store_fields *)
Definition rest_len (n : nat) (cap : N) : nat :=
  N.to_nat (if N.leb (N.of_nat n) cap then 0%N else (N.of_nat n - cap)%N).
Lemma rest_len_val n cap : rest_len n cap = (n - N.to_nat cap)%nat.
Proof. unfold rest_len. destruct (N.leb_spec (N.of_nat n) cap); lia. Qed.

Section Chain.
Variable im : image.

Definition link_code (bp : block_position) (remaining to_store : ctx) : res (list xcode) :=
  match bp with Other => store_field Fst (remaining ++ to_store) HEAP (FIELDS_PER_BLOCK - 1) | Last => Ok [] end.

Lemma store_fields_unfold fuel to_store remaining bp lc cs lc' :
  to_store <> [] -> store_fields (S fuel) to_store remaining bp lc = Ok (cs, lc') ->
  let rl := rest_len (List.length to_store) (3 - bp_n bp) in
  let k := (2 * N.of_nat (List.length (remaining ++ firstn rl to_store)))%N in
  exists c0 sv c3,
    link_code bp remaining to_store = Ok c0 /\
    store_values (rev (skipn rl to_store)) (remaining ++ firstn rl to_store) HEAP (3 - bp_n bp) = Ok sv /\
    (k < MAXPOS)%N /\
    store_fields fuel (firstn rl to_store) remaining Other (snd (acquire_block (tpos k) lc)) = Ok (c3, lc') /\
    cs = c0 ++ sv ++ fst (acquire_block (tpos k) lc) ++ c3.
Proof.
  intros Hne H rl k. cbn [store_fields] in H. destruct to_store as [|x r]; [contradiction|].
  change (FIELDS_PER_BLOCK - bp_n bp)%N with (3 - bp_n bp)%N in H.
  fold (rest_len (List.length (x :: r)) (3 - bp_n bp)) in H. fold rl in H.
  fold (link_code bp remaining (x :: r)) in H.
  destruct (link_code bp remaining (x :: r)) as [c0|] eqn:E0; [|discriminate]. cbn [rbind] in H.
  destruct (store_values (rev (skipn rl (x :: r))) (remaining ++ firstn rl (x :: r)) HEAP (3 - bp_n bp)) as [sv|] eqn:Esv; [|discriminate].
  cbn [rbind] in H.
  destruct (x_fresh Fst (remaining ++ firstn rl (x :: r))) as [t|] eqn:Et; [|discriminate]. cbn [rbind] in H.
  apply x_fresh_tpos in Et as [-> Hk]. cbn [tnum_n] in *. rewrite N.add_0_r in *. fold k in H, Hk.
  destruct (acquire_block (tpos k) lc) as [c2 lc2] eqn:EA.
  destruct (store_fields fuel (firstn rl (x :: r)) remaining Other lc2) as [[c3 lc3]|] eqn:E3; [|discriminate]. cbn [rbind] in H.
  inversion H; subst. exists c0, sv, c3. cbn [fst snd]. auto.
Qed.

Lemma x86_store_block_ok pos bp to_store remaining lc c0 sv s sp F val link :
  let E := List.length remaining in
  let n := List.length to_store in
  let cap := (3 - bp_n bp)%N in
  let rl := rest_len n cap in
  let k := (2 * N.of_nat (E + rl))%N in
  let acq := fst (acquire_block (tpos k) lc) in
  to_store <> [] ->
  link_code bp remaining to_store = Ok c0 ->
  store_values (rev (skipn rl to_store)) (remaining ++ firstn rl to_store) HEAP cap = Ok sv ->
  (k < MAXPOS)%N ->
  code_at im pos (c0 ++ sv ++ acq) -> labels_at im pos (c0 ++ sv ++ acq) ->
  frame_ok s sp -> vals_ok s sp val E to_store ->
  (bp = Other -> lget s sp (tpos (2 * N.of_nat (E + n))) = Some link) ->
  acq_ok (abs_heap F s) ->
  let P := Heap.pad (N.to_nat cap) (Heap.lastn (N.to_nat cap) (fsts val E to_store)) ++ (match bp with Other => [link] | Last => [] end) in
  let res := Heap.alloc P (abs_heap F s) in
  let rv := Heap.heap (abs_heap F s) in
  exists s', steps im pos s (pnth pos (List.length (c0 ++ sv ++ acq))) s' /\
    st_eqB (abs_heap (Heap.frontier (snd res)) s') (snd res) /\
    lget s' sp (tpos k) = Some (fst res) /\ is_blk (fst res) /\
    (forall k', (k' < MAXPOS)%N -> k' <> k -> lget s' sp (tpos k') = lget s sp (tpos k')) /\
    out s' = out s /\ frame_ok s' sp /\
    fst res = rv /\
    stored (hword s') (hword s') val (E + rl) (skipn rl to_store) rv cap /\
    (bp = Other -> hword s' (rv + 48) = link) /\
    (forall a, ~ is_blk a -> a < rv \/ rv + 64 <= a -> hword s' a = hword s a) /\
    stack_frame s s' sp.
Proof.
  intros E n cap rl k acq Hne Hc0 Hsv Hk HC HL FR V Hlink AOK P res rv0.
  destruct (acq_ok_machine F s AOK) as (rv & h2 & R & Hb & Rf & Hb2 & Hch).
  assert (Erv : rv0 = rv) by (unfold rv0; cbn [abs_heap Heap.heap]; unfold reg_or0; now rewrite R).
  rewrite Erv. clear Erv rv0.
  assert (Hcap : (cap = 3 \/ cap = 2)%N) by (unfold cap; destruct bp; cbn; auto).
  assert (Hrl : rl = (n - N.to_nat cap)%nat) by apply rest_len_val.
  assert (Hrln : (rl <= n)%nat) by lia.
  assert (Lfirst : List.length (firstn rl to_store) = rl) by (rewrite firstn_length; fold n; lia).
  assert (Lnext : List.length (skipn rl to_store) = (n - rl)%nat) by (rewrite skipn_length; reflexivity).
  assert (Lrr : List.length (remaining ++ firstn rl to_store) = (E + rl)%nat) by (rewrite app_length, Lfirst; reflexivity).
  apply code_at_app2 in HC as [HC0 HC]. apply labels_at_app2 in HL as [_ HL].
  apply code_at_app2 in HC as [HC1 HC2]. apply labels_at_app2 in HL as [_ HL2].
  assert (S0 : exists s0, steps im pos s (pnth pos (List.length c0)) s0 /\ same_but_temp s s0 /\
            (forall a, hword s0 a = if (match bp with Other => true | Last => false end) && (a =? rv + 48) then link else hword s a)).
  { destruct bp; cbn [link_code] in Hc0.
    - inversion Hc0; subst c0. exists s. split; [apply steps_refl|]. split; [apply same_but_temp_refl|]. reflexivity.
    - change (FIELDS_PER_BLOCK - 1)%N with 2%N in Hc0. apply store_field_shape in Hc0 as [K0 ->].
      rewrite app_length in *. cbn [tnum_n] in *. rewrite N.add_0_r in *. fold E n in K0, HC0 |- *.
      destruct (x86_store_field_code_ok im pos _ HEAP _ s sp link rv HC0 FR (tpos_loc_ok _ K0) (Hlink eq_refl) ltac:(discriminate) R)
        as (s0 & ST0 & SB0 & W0).
      { apply field_addr; auto. lia. }
      exists s0. split; [exact ST0|]. split; [exact SB0|]. intros a. rewrite W0. rewrite fo_F2. reflexivity. }
  destruct S0 as (s0 & ST0 & SB0 & W0).
  assert (FR0 : frame_ok s0 sp) by (eapply same_but_temp_frame; eauto).
  assert (R0 : rget s0 HEAP = Some rv) by (destruct SB0 as (A & _); rewrite A by discriminate; exact R).
  assert (W0' : forall a, a <> rv + 48 -> hword s0 a = hword s a).
  { intros a Ha. rewrite W0. destruct (Z.eqb_spec a (rv + 48)); [contradiction|]. now rewrite andb_false_r. }
  assert (V0 : vals_ok s0 sp val (E + rl) (skipn rl to_store)).
  { eapply vals_ok_same; [exact SB0|]. rewrite <- Lfirst at 1. apply (vals_ok_app_r s sp val E (firstn rl to_store)).
    now rewrite firstn_skipn. }
  rewrite <- Lrr in V0.
  destruct (x86_store_values_ok im _ (skipn rl to_store) (remaining ++ firstn rl to_store) cap sv s0 sp rv F val Hsv Hcap
              ltac:(rewrite Lnext; lia) HC1 FR0 R0 Hb V0) as (s1 & ST1 & SB1 & St & EQ1).
  rewrite Lrr in St, EQ1.
  assert (Hff : (cap <= 3)%N) by (destruct Hcap as [-> | ->]; lia).
  assert (SB01 : same_but_temp s s1) by (eapply same_but_temp_trans; eassumption).
  assert (FR1 : frame_ok s1 sp) by (eapply same_but_temp_frame; eauto).
  assert (R1 : rget s1 HEAP = Some rv) by (destruct SB01 as (A & _); rewrite A by discriminate; exact R).
  assert (Rf1 : rget s1 FREE = Some h2) by (destruct SB01 as (A & _); rewrite A by discriminate; exact Rf).
  assert (Hdr : forall x, is_blk x -> hword s1 x = hword s x).
  { intros x Hx. rewrite (stored_blk_hdr _ _ _ _ _ _ _ x St Hff Hb Hx). apply W0'.
    destruct (Z.eq_dec x rv) as [->|Hne']; [lia|]. destruct (is_blk_apart x rv Hx Hb Hne'); lia. }
  assert (Hoth : forall x i, is_blk x -> x <> rv -> 0 <= i < 64 -> hword s1 (x + i) = hword s (x + i)).
  { intros x i Hx Hne' Hi. rewrite (stored_other_blk _ _ _ _ _ _ _ x i St Hff Hb Hx Hne' Hi). apply W0'.
    destruct (is_blk_apart x rv Hx Hb Hne'); lia. }
  assert (Hb21 : hword s1 rv = 0 -> is_blk h2) by (rewrite Hdr by auto; exact Hb2).
  assert (Hch1 : hword s1 rv = 0 -> hword s1 h2 <> 0 ->
     (forall off, off = 16 \/ off = 32 \/ off = 48 -> hword s1 (h2 + off) = 0 \/ is_blk (hword s1 (h2 + off))) /\
     bounded 3 s1 (hword s1 h2)).
  { intros H0 Hn0. pose proof (Hb21 H0) as Hbh2.
    assert (Hne' : h2 <> rv) by (intros ->; contradiction).
    rewrite Hdr in H0, Hn0 by auto. destruct (Hch H0 Hn0) as [Kids [B1 B2]]. split.
    - intros off Hoff. rewrite Hoth by (auto; lia). now apply Kids.
    - rewrite Hdr by auto. split; [|exact B2]. intros x Hx. rewrite Hdr by auto. now apply B1. }
  fold k in HC2, HL2.
  destruct (x86_acquire_block_tpos_ok im _ k lc s1 sp rv h2 F Hk HC2 HL2 FR1 R1 Hb Rf1 Hb21 Hch1)
    as (s2 & ST2 & EQ2 & Rr & Ef & Oth & Out & FR2 & NB & SF2).
  (* the abstract side *)
  assert (RH : reg_or0 s HEAP = rv) by (unfold reg_or0; now rewrite R).
  assert (RF : reg_or0 s FREE = h2) by (unfold reg_or0; now rewrite Rf).
  assert (RH0 : reg_or0 s0 HEAP = rv) by (unfold reg_or0; now rewrite R0).
  assert (RF0 : reg_or0 s0 FREE = h2) by (unfold reg_or0; destruct SB0 as (A & _); rewrite A by discriminate; now rewrite Rf).
  assert (EP : Heap.pad (N.to_nat cap) (fsts val (E + rl) (skipn rl to_store)) ++ link_slot cap (hword s0) rv = P).
  { unfold P. f_equal.
    - f_equal. rewrite fsts_skipn by (fold n; lia). unfold Heap.lastn. rewrite fsts_length. fold n. now rewrite Hrl.
    - unfold link_slot, cap. destruct bp; cbn [bp_n N.sub N.eqb Pos.eqb]; [reflexivity|].
      rewrite W0, Z.eqb_refl. reflexivity. }
  rewrite EP, RH0, RF0 in EQ1.
  set (A := {| Heap.m := Heap.set_ps (abs_mem s) rv P; Heap.heap := rv; Heap.free := h2; Heap.frontier := F |}).
  assert (Eres : res = Heap.acquire A).
  { unfold res, Heap.alloc, A. cbn [abs_heap Heap.m Heap.heap Heap.free Heap.frontier]. now rewrite RH, RF. }
  assert (EQ1' : st_eqB (abs_heap F s1) A).
  { eapply st_eqB_trans; [exact EQ1|]. split; [reflexivity|]. split; [reflexivity|]. split; [reflexivity|].
    intros x Hx. unfold A. cbn [Heap.m]. unfold Heap.set_ps, Heap.upd.
    destruct (Z.eqb_spec x rv) as [->|Hne'].
    - unfold abs_mem. cbn [Heap.hdr]. rewrite W0' by lia. reflexivity.
    - unfold abs_mem. destruct (is_blk_apart x rv Hx Hb Hne'); rewrite !W0' by lia; reflexivity. }
  destruct (acquire_st_eqB (abs_heap F s1) A EQ1') as [Efst Esnd].
  { cbn [abs_heap Heap.heap]. unfold reg_or0. now rewrite R1. }
  { cbn [abs_heap Heap.heap Heap.free Heap.m]. unfold reg_or0. rewrite R1, Rf1. exact Hb21. }
  { cbn [abs_heap Heap.heap Heap.free Heap.m]. unfold reg_or0. rewrite R1, Rf1. intros H0 Hn0.
    destruct (Hch1 H0 Hn0) as [Kids _]. cbn [abs_mem Heap.ps]. repeat (apply Forall_cons; [apply Kids; auto|]). apply Forall_nil. }
  assert (EFr : Heap.frontier (snd (Heap.acquire (abs_heap F s1))) = Heap.frontier (snd (Heap.acquire A)))
    by (destruct Esnd as (_ & _ & X & _); exact X).
  clearbody res. subst res.
  destruct St as (S1 & S2 & S3).
  exists s2. split; [|split; [|split; [|split; [|split; [|split; [|split; [|split; [|split; [|split; [|split]]]]]]]]]].
  - rewrite !app_length, <- !pnth_add. eapply steps_trans; [exact ST0|]. eapply steps_trans; [exact ST1|]. exact ST2.
  - rewrite <- EFr. eapply st_eqB_trans; eassumption.
  - rewrite <- Efst, Ef. exact Rr.
  - rewrite <- Efst, Ef. exact Hb.
  - intros k' Hk' Hne'. rewrite Oth.
    + apply same_but_temp_lget; [exact SB01|apply tpos_not_temp].
    + now apply tpos_loc_ok.
    + intro Eq. apply tpos_inj in Eq. contradiction.
    + apply tpos_not_reserved.
    + apply tpos_not_reserved.
    + apply tpos_not_reserved.
  - rewrite Out. destruct SB01 as (_ & _ & X). exact X.
  - exact FR2.
  - rewrite <- Efst. exact Ef.
  - split; [|split; [|reflexivity]].
    + intros i b Hi. assert (Hil : (i < n - rl)%nat) by (rewrite <- Lnext; apply nth_error_Some; congruence).
      rewrite Lnext in *. rewrite !NB by (apply field_not_blk; [exact Hb|lia]). exact (S1 i b Hi).
    + intros j Hj. rewrite Lnext in *. rewrite NB by (apply field_not_blk; [exact Hb|lia]). exact (S2 j Hj).
  - intros ->. rewrite NB by (apply not_blk_off; [exact Hb|lia]).
    rewrite S3 by (change (3 - bp_n Other)%N with 2%N in *; lia).
    rewrite W0, Z.eqb_refl. reflexivity.
  - intros a Ha Hout. rewrite NB by exact Ha. rewrite S3 by lia. apply W0'. lia.
  - eapply stack_frame_trans; [apply stack_frame_sbt; exact SB01|exact SF2].
Qed.

(* the continuation blocks (BlockPosition::Other) *)
Lemma x86_store_fields_other_ok : forall fuel to_store remaining lc cs lc' pos s sp F val link fa,
  store_fields fuel to_store remaining Other lc = Ok (cs, lc') ->
  (List.length to_store < fuel)%nat -> (List.length to_store <= fa)%nat ->
  code_at im pos cs -> labels_at im pos cs -> frame_ok s sp ->
  vals_ok s sp val (List.length remaining) to_store ->
  lget s sp (tpos (2 * N.of_nat (List.length remaining + List.length to_store))) = Some link ->
  chain_pre fa (fsts val (List.length remaining) to_store) link (abs_heap F s) ->
  let res := Heap.store_other fa (fsts val (List.length remaining) to_store) link (abs_heap F s) in
  exists s', steps im pos s (pnth pos (List.length cs)) s' /\
    st_eqB (abs_heap (Heap.frontier (snd res)) s') (snd res) /\
    lget s' sp (tpos (2 * N.of_nat (List.length remaining))) = Some (fst res) /\
    (forall k, (k < 2 * N.of_nat (List.length remaining))%N -> lget s' sp (tpos k) = lget s sp (tpos k)) /\
    out s' = out s /\ frame_ok s' sp.
Proof.
  induction fuel as [|fuel IH]; intros to_store remaining lc cs lc' pos s sp F val link fa Hsf Hfuel Hfa HC HL FR V Hlink Pre res; [lia|].
  set (E := List.length remaining) in *.
  destruct to_store as [|x r].
  - cbn [store_fields] in Hsf. inversion Hsf; subst cs lc'. cbn [List.length] in Hlink. rewrite Nat.add_0_r in Hlink.
    assert (Hres : res = (link, abs_heap F s)) by (unfold res; destruct fa; reflexivity).
    rewrite Hres. cbn [fst snd abs_heap Heap.frontier List.length pnth].
    exists s. split; [apply steps_refl|]. split; [apply st_eqB_refl|]. auto.
  - set (to_store := x :: r) in *. set (n := List.length to_store) in *.
    destruct (store_fields_unfold fuel to_store remaining Other lc cs lc' ltac:(discriminate) Hsf) as (c0 & sv & c3 & Hc0 & Hsv & Hk & Hsf3 & ->).
    change (3 - bp_n Other)%N with 2%N in *. fold n in Hk, Hsv, Hsf3, HC, HL |- *.
    set (rl := rest_len n 2) in *.
    assert (Hrl : rl = (n - 2)%nat) by apply rest_len_val.
    assert (Lfirst : List.length (firstn rl to_store) = rl) by (rewrite firstn_length; fold n; lia).
    assert (Lrr : List.length (remaining ++ firstn rl to_store) = (E + rl)%nat) by (rewrite app_length, Lfirst; reflexivity).
    rewrite Lrr in *.
    destruct fa as [|fa]; [unfold n, to_store in Hfa; cbn [List.length] in Hfa; lia|].
    set (fields := fsts val E to_store) in *.
    assert (Hfne : fields <> []) by (unfold fields, to_store; cbn [fsts]; discriminate).
    assert (Lfields : List.length fields = n) by apply fsts_length.
    set (P := Heap.pad 2 (Heap.lastn 2 fields) ++ [link]) in *.
    assert (Pre' : acq_ok (abs_heap F s) /\ chain_pre fa (Heap.butlastn 2 fields) (fst (Heap.alloc P (abs_heap F s))) (snd (Heap.alloc P (abs_heap F s)))).
    { cbn [chain_pre] in Pre. destruct fields; [contradiction|]. exact Pre. }
    destruct Pre' as [AOK Pre'].
    assert (Hres : res = Heap.store_other fa (Heap.butlastn 2 fields) (fst (Heap.alloc P (abs_heap F s))) (snd (Heap.alloc P (abs_heap F s))))
      by (unfold res; now rewrite store_other_step).
    rewrite Hres. clear Hres res.
    rewrite !app_assoc in HC, HL. apply code_at_app2 in HC as [HC1 HC3]. apply labels_at_app2 in HL as [HL1 HL3].
    rewrite <- !app_assoc in HC1, HL1. rewrite <- (app_assoc c0 sv) in HC3, HL3.
    destruct (x86_store_block_ok pos Other to_store remaining lc c0 sv s sp F val link ltac:(discriminate) Hc0 Hsv Hk HC1 HL1 FR V (fun _ => Hlink) AOK)
      as (s2 & ST2 & EQ2 & Rr & Bb & Oth & Out & FR2 & _).
    change (N.to_nat (3 - bp_n Other)) with 2%nat in *. change (3 - bp_n Other)%N with 2%N in *. fold E n rl fields P in ST2, EQ2, Rr, Bb, Oth.
    set (b := fst (Heap.alloc P (abs_heap F s))) in *. set (a1 := snd (Heap.alloc P (abs_heap F s))) in *.
    assert (Hbut : Heap.butlastn 2 fields = fsts val E (firstn rl to_store)).
    { unfold Heap.butlastn. rewrite Lfields, fsts_firstn, Hrl. reflexivity. }
    rewrite Hbut in *.
    assert (V2 : vals_ok s2 sp val E (firstn rl to_store)) by (apply (vals_ok_firstn s); [pose proof (firstn_le_length rl to_store); lia|exact Hk|exact Oth|exact V]).
    destruct (store_other_congr fa _ b a1 (abs_heap (Heap.frontier a1) s2) (st_eqB_sym _ _ EQ2) Pre') as (Pre2 & Ef & Es).
    rewrite (app_assoc sv), (app_assoc c0).
    destruct (IH (firstn rl to_store) remaining _ c3 lc' _ s2 sp (Heap.frontier a1) val b fa Hsf3 ltac:(rewrite Lfirst; unfold n, to_store in *; cbn [List.length] in *; lia)
                ltac:(rewrite Lfirst; unfold n, to_store in *; cbn [List.length] in *; lia) HC3 HL3 FR2 V2)
      as (s3 & ST3 & EQ3 & R3 & Oth3 & Out3 & FR3).
    { rewrite Lfirst. exact Rr. }
    { exact Pre2. }
    fold E in EQ3, R3, Oth3.
    exists s3. split; [|split; [|split; [|split; [|split]]]].
    + eapply steps_app_len; eassumption.
    + pose proof Es as (_ & _ & X3 & _). rewrite X3.
      eapply st_eqB_trans; [exact EQ3|apply st_eqB_sym; exact Es].
    + rewrite Ef. exact R3.
    + intros k Hk'. rewrite Oth3 by exact Hk'. apply Oth; lia.
    + congruence.
    + exact FR3.
Qed.

Theorem x86_store_ok pos to_store remaining lc cs lc' s sp F val :
  x_store to_store remaining lc = Ok (cs, lc') -> to_store <> [] ->
  code_at im pos cs -> labels_at im pos cs -> frame_ok s sp ->
  vals_ok s sp val (List.length remaining) to_store ->
  alloc_object_pre (fsts val (List.length remaining) to_store) (abs_heap F s) ->
  let res := Heap.alloc_object (fsts val (List.length remaining) to_store) (abs_heap F s) in
  exists s', steps im pos s (pnth pos (List.length cs)) s' /\
    st_eqB (abs_heap (Heap.frontier (snd res)) s') (snd res) /\
    lget s' sp (tpos (2 * N.of_nat (List.length remaining))) = Some (fst res) /\
    (forall k, (k < 2 * N.of_nat (List.length remaining))%N -> lget s' sp (tpos k) = lget s sp (tpos k)) /\
    out s' = out s /\ frame_ok s' sp.
Proof.
  intros Hx Hne HC HL FR V Pre res. unfold x_store in Hx.
  set (E := List.length remaining) in *. set (n := List.length to_store) in *.
  destruct (store_fields_unfold n to_store remaining Last lc cs lc' Hne Hx) as (c0 & sv & c3 & Hc0 & Hsv & Hk & Hsf3 & ->).
  change (3 - bp_n Last)%N with 3%N in *. fold n in Hk, Hsv, Hsf3, HC, HL |- *.
  set (rl := rest_len n 3) in *.
  assert (Hrl : rl = (n - 3)%nat) by apply rest_len_val.
  assert (Lfirst : List.length (firstn rl to_store) = rl) by (rewrite firstn_length; fold n; lia).
  assert (Hn : (1 <= n)%nat) by (unfold n; destruct to_store; [contradiction|cbn; lia]).
  assert (Lrr : List.length (remaining ++ firstn rl to_store) = (E + rl)%nat) by (rewrite app_length, Lfirst; reflexivity).
  rewrite Lrr in *.
  set (fields := fsts val E to_store) in *.
  assert (Lfields : List.length fields = n) by apply fsts_length.
  assert (Hfne : fields <> []) by (intros Hf; rewrite Hf in Lfields; cbn in Lfields; lia).
  set (P := Heap.pad 3 (Heap.lastn 3 fields)) in *.
  assert (Pre' : acq_ok (abs_heap F s) /\ chain_pre n (Heap.butlastn 3 fields) (fst (Heap.alloc P (abs_heap F s))) (snd (Heap.alloc P (abs_heap F s)))).
  { unfold alloc_object_pre in Pre. rewrite Lfields in Pre. destruct fields; [contradiction|]. exact Pre. }
  destruct Pre' as [AOK Pre'].
  assert (Hres : res = Heap.store_other n (Heap.butlastn 3 fields) (fst (Heap.alloc P (abs_heap F s))) (snd (Heap.alloc P (abs_heap F s)))).
  { unfold res, Heap.alloc_object. rewrite Lfields. fold P. destruct fields; [contradiction|]. destruct (Heap.alloc P (abs_heap F s)). reflexivity. }
  rewrite Hres. clear Hres res.
  rewrite !app_assoc in HC, HL. apply code_at_app2 in HC as [HC1 HC3]. apply labels_at_app2 in HL as [HL1 HL3].
  rewrite <- !app_assoc in HC1, HL1. rewrite <- (app_assoc c0 sv) in HC3, HL3.
  destruct (x86_store_block_ok pos Last to_store remaining lc c0 sv s sp F val 0 Hne Hc0 Hsv Hk HC1 HL1 FR V ltac:(discriminate) AOK)
    as (s2 & ST2 & EQ2 & Rr & Bb & Oth & Out & FR2 & _).
  change (N.to_nat (3 - bp_n Last)) with 3%nat in *. change (3 - bp_n Last)%N with 3%N in *. rewrite app_nil_r in *. fold E n rl fields P in ST2, EQ2, Rr, Bb, Oth.
  set (b := fst (Heap.alloc P (abs_heap F s))) in *. set (a1 := snd (Heap.alloc P (abs_heap F s))) in *.
  assert (Hbut : Heap.butlastn 3 fields = fsts val E (firstn rl to_store)).
  { unfold Heap.butlastn. rewrite Lfields, fsts_firstn, Hrl. reflexivity. }
  rewrite Hbut in *.
  assert (V2 : vals_ok s2 sp val E (firstn rl to_store)) by (apply (vals_ok_firstn s); [pose proof (firstn_le_length rl to_store); lia|exact Hk|exact Oth|exact V]).
  destruct (store_other_congr n _ b a1 (abs_heap (Heap.frontier a1) s2) (st_eqB_sym _ _ EQ2) Pre') as (Pre2 & Ef & Es).
  rewrite (app_assoc sv), (app_assoc c0).
  destruct (x86_store_fields_other_ok n (firstn rl to_store) remaining _ c3 lc' _ s2 sp (Heap.frontier a1) val b n Hsf3
              ltac:(rewrite Lfirst; lia) ltac:(rewrite Lfirst; lia) HC3 HL3 FR2 V2)
    as (s3 & ST3 & EQ3 & R3 & Oth3 & Out3 & FR3).
  { rewrite Lfirst. exact Rr. }
  { exact Pre2. }
  fold E in EQ3, R3, Oth3.
  exists s3. split; [|split; [|split; [|split; [|split]]]].
  + eapply steps_app_len; eassumption.
  + pose proof Es as (_ & _ & X3 & _). rewrite X3.
    eapply st_eqB_trans; [exact EQ3|apply st_eqB_sym; exact Es].
  + rewrite Ef. exact R3.
  + intros k Hk'. rewrite Oth3 by exact Hk'. apply Oth; lia.
  + congruence.
  + exact FR3.
Qed.
End Chain.

Print Assumptions x86_store_ok.

(* the hypotheses are satisfiable: five variables (two blocks) into a fresh heap *)
Definition ex5_val (k : N) : Z := 100 + Z.of_N k.
Definition ex5_state : xstate :=
  fold_left (fun s k => rset s (k + 4)%N (Some (ex5_val k)))
            [0; 1; 2; 3; 4; 5; 6; 7; 8; 9]%N
            (rset (rset (rset (init_state []) 0 (Some ex_sp)) HEAP (Some HEAP_BASE)) FREE (Some (HEAP_BASE + 64))).
Definition ex5_store : ctx :=
  [mkb ("a"%string, 0%N) Ext I64; mkb ("b"%string, 1%N) Prd (Decl ("T"%string, 0%N)); mkb ("c"%string, 2%N) Ext I64;
   mkb ("d"%string, 3%N) Cns (Decl ("T"%string, 0%N)); mkb ("e"%string, 4%N) Ext I64].
Definition ex5_code : list xcode := match x_store ex5_store [] 0 with Ok (cs, _) => cs | Err _ => [] end.

Example x86_store_example :
  let a := abs_heap (HEAP_BASE + 64) ex5_state in
  let res := Heap.alloc_object (fsts ex5_val 0 ex5_store) a in
  exists lc', x_store ex5_store [] 0 = Ok (ex5_code, lc') /\
  fsts ex5_val 0 ex5_store = [0; 102; 0; 106; 0] /\
  fst res = HEAP_BASE + 64 /\ Heap.frontier (snd res) = HEAP_BASE + 192 /\
  exists s', steps (mk_image ex5_code) 1 ex5_state (pnth 1 (List.length ex5_code)) s' /\
     st_eqB (abs_heap (HEAP_BASE + 192) s') (snd res) /\ rget s' 4%N = Some (HEAP_BASE + 64).
Proof.
  intros a res.
  assert (Hx : exists lc', x_store ex5_store [] 0 = Ok (ex5_code, lc')) by (eexists; vm_compute; reflexivity).
  destruct Hx as [lc' Hx]. exists lc'. split; [exact Hx|]. split; [reflexivity|].
  assert (Ef : fst res = HEAP_BASE + 64) by (vm_compute; reflexivity).
  assert (EF : Heap.frontier (snd res) = HEAP_BASE + 192) by (vm_compute; reflexivity).
  split; [exact Ef|]. split; [exact EF|].
  destruct (mk_image_code_labels ex5_code) as [HC HL]; [apply nodupb_sound; vm_compute; reflexivity|].
  assert (Bk : forall k, 0 <= k <= 3 -> is_blk (HEAP_BASE + 64 * k)).
  { intros k Hk. exists k. split; [lia|]. split; [reflexivity|]. unfold HEAP_BASE, HEAP_SIZE. lia. }
  destruct (x86_store_ok (mk_image ex5_code) 1 ex5_store [] 0 ex5_code lc' ex5_state ex_sp (HEAP_BASE + 64) ex5_val Hx ltac:(discriminate) HC HL)
    as (s' & ST & EQ & Rr & _).
  - split; [vm_compute; reflexivity|exact sp_ok_below_top].
  - intros i b Hi. destruct i as [|[|[|[|[|i]]]]]; cbn in Hi; try (destruct i; discriminate); inversion Hi; subst b;
      (split; [vm_compute; reflexivity|intros _; vm_compute; reflexivity]).
  - change (fsts ex5_val (List.length (@nil binding)) ex5_store) with [0; 102; 0; 106; 0].
    unfold alloc_object_pre. split.
    + split; [exact (Bk 0 ltac:(lia))|]. split; [vm_compute; discriminate|]. split.
      * intros _. exact (Bk 1 ltac:(lia)).
      * intros _ H. exfalso. apply H. vm_compute. reflexivity.
    + cbn [List.length chain_pre]. unfold Heap.butlastn at 1. cbn [List.length Nat.sub firstn]. split.
      * split; [|split; [|split]].
        -- replace (Heap.heap _) with (HEAP_BASE + 64 * 1) by (vm_compute; reflexivity). apply Bk. lia.
        -- vm_compute. discriminate.
        -- intros _. replace (Heap.free _) with (HEAP_BASE + 64 * 2) by (vm_compute; reflexivity). apply Bk. lia.
        -- intros _ H. exfalso. apply H. vm_compute. reflexivity.
      * unfold Heap.butlastn. cbn [List.length Nat.sub firstn chain_pre]. exact I.
  - exists s'. change (st_eqB (abs_heap (Heap.frontier (snd res)) s') (snd res)) in EQ.
    change (lget s' ex_sp (tpos 0) = Some (fst res)) in Rr. rewrite EF in EQ. rewrite Ef in Rr. auto.
Qed.
Print Assumptions x86_store_example.
