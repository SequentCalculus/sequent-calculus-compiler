(* C01: the composition of Proof/Compose.v with the focusing link DISCHARGED by the C03 preservation
   theorem (Proof/UqCompose.v) for Core programs that are chirality-consistently scoped ([cs_prog]) and
   satisfy [static_ok] (Model/FocusGuard.v): simply typed ([tc_prog], Proof/FocusTyped.v), or inside one
   of the syntactic guards [sg_prog] (no by-name value / no by-value return continuation,
   Proof/FocusFrag.v). *)
From Coq Require Import List ZArith NArith String Ascii Bool Lia.
From SCC Require Import Base.Sexp Lang.AxSyn Lang.FunSyn Lang.CoreSyn Sem.AxSem Sem.CoreSem Sem.FunSem Sem.X86Sem
     Model.Backend Model.Fun2Core Model.Focus Model.FocusCheck Model.Shrink Model.Linearize Model.LinCheck Model.X86 Model.Runtime
     Proof.RuntimeProof Proof.LinSim Proof.Compose Proof.FocusRun Proof.FocusFrag Proof.UqAeq Proof.UqCompose.
From SCC Require Import Model.FocusGuard.
Import ListNotations.
Open Scope Z_scope.

(* the focusing link, proved (C03) *)
Lemma focus_static_link : forall c f args o,
  pre_check c = true -> focus_wf c = true -> cs_prog c = true -> static_ok c = true -> focus_prog c = Backend.Ok f ->
  out_ok o -> forall m, run_core m c args = o -> exists m', run_fs m' f args = o.
Proof.
  intros c f args o Hpre Hwf Hcs ST Hf (z & Hz) m R.
  assert (GE : good_end (snd (run_core m c args))) by (rewrite R, Hz; exact I).
  destruct (uniquify_focus_preserves_static c f args m Hpre Hwf Hcs ST Hf GE) as (m2 & R2). rewrite R in R2. eauto.
Qed.

Section Pipeline.
Hypothesis fun2core_correct : link_fun2core.
Hypothesis shrink_correct : link_shrink.
Hypothesis x86_codegen_correct : link_x86.

Theorem compile_correct_focus_discharged :
  forall (p : fcprog) (c : cprog) (f : fsprog) (a : prog) (cs : list xcode) (nargs : nat) (lc lc' : N)
         (args : list Z) (n : nat) (o : obs),
    annotated_fcprog p = true -> effect_sequenced p = true -> barendregt p = true ->
    compile_prog p = Fun2Core.Ok c -> pre_check c = true -> focus_wf c = true ->
    cs_prog c = true -> static_ok c = true ->
    focus_prog c = Backend.Ok f -> shrink_prog f = SOk a -> prog_ok a = true ->
    x86_compile (linearize a) lc = Backend.Ok (cs, nargs, lc') ->
    run_fun n p args = o -> out_ok o ->
    (exists outer inner, fst (run_x86 outer inner cs args) = o) /\
    (Forall (fun pz => in_i64 (snd pz)) (fst o) ->
     bytes_of_string (render_prints (fst o)) = flat_map runtime_bytes (fst o)).
Proof.
  intros p c f a cs nargs lc lc' args n o An Es Ba Hc Hpre Hwf Hcs ST Hf Hs Hok Hx Hrun OK.
  pose proof (out_ok_defined o OK) as D.
  destruct (chain_to_linear c f a args o OK) as (m & R);
    [exact (fun2core_correct p c args n o An Es Ba Hc Hrun D) | exact (focus_static_link c f args o Hpre Hwf Hcs ST Hf OK)
    |intros m R; exact (shrink_correct f a m args o Hs R (out_ok_final o OK)) | exact Hok |].
  split; [exact (x86_codegen_correct (linearize a) lc cs nargs lc' args m o Hx R D) | apply render_prints_is_runtime_output].
Qed.
End Pipeline.
