(* C03, uniquify preserves behaviour: two successive variable-for-variable substitutions are
   one ([subst_compose]).  `uniquify` substitutes at every renamed binder into a body that already
   went through the substitutions of the enclosing binders; this lemma lets the proof talk about a
   single pending substitution of the ORIGINAL body. *)
From Coq Require Import List ZArith NArith String Bool Lia.
From SCC Require Import Base.Sexp Lang.CoreSyn Model.Backend Model.Uniquify Model.FocusCheck Proof.CoreInd
     Proof.SubstProof Proof.FocusKont.
Import ListNotations.
Open Scope list_scope.

Definition keys (s : csubst) : list cident := map fst s.

(* every replacement term is a variable whose name is not in [avoid] *)
Definition rvar (s : csubst) (avoid : list cident) : Prop :=
  forall k t, In (k, t) s -> exists ch n ty, t = CXVar ch n ty /\ ~ In n avoid.

(* (P, C) first, then (P2, C2), is (P2 ++ P, C2 ++ C): nothing that (P, C) puts in is a key of the second
   substitution, and the second has no key of the first (those occurrences are gone) *)
Definition compat (P C P2 C2 : csubst) : Prop :=
  rvar P (keys P2 ++ keys C2) /\ rvar C (keys P2 ++ keys C2) /\
  (forall k, In k (keys P2 ++ keys C2) -> ~ In k (keys P ++ keys C)).

Lemma subst_find_none : forall x s, subst_find x s = None <-> ~ In x (keys s).
Proof.
  induction s as [|[k t] s IH]; simpl.
  - split; auto.
  - destruct (cident_eqb k x) eqn:E.
    + apply cident_eqb_eq in E. subst. split; [discriminate | intros H; exfalso; apply H; auto].
    + rewrite IH. split.
      * intros H [F|F]; [subst; rewrite cident_eqb_refl in E; discriminate | auto].
      * intros H F; apply H; auto.
Qed.
Lemma subst_find_app : forall x a b,
  subst_find x (a ++ b) = match subst_find x a with Some t => Some t | None => subst_find x b end.
Proof.
  induction a as [|[k t] a IH]; simpl; intros b; [reflexivity|].
  destruct (cident_eqb k x); [reflexivity | apply IH].
Qed.
Lemma subst_find_key : forall x s t, subst_find x s = Some t -> In x (keys s) /\ In (x, t) s.
Proof.
  induction s as [|[k u] s IH]; simpl; intros t H; [discriminate|].
  destruct (cident_eqb k x) eqn:E.
  - apply cident_eqb_eq in E. subst. inversion H; subst. auto.
  - destruct (IH _ H); auto.
Qed.

Lemma keys_filter_in : forall f s k, In k (keys (filter f s)) -> In k (keys s).
Proof.
  unfold keys. intros f s k H. apply in_map_iff in H. destruct H as ([k' t] & <- & H).
  apply filter_In in H. apply in_map_iff. exists (k', t). tauto.
Qed.
Lemma rvar_filter : forall f s a a', rvar s a -> (forall n, In n a' -> In n a) -> rvar (filter f s) a'.
Proof.
  intros f s a a' H I k t Hk. apply filter_In in Hk. destruct (H k t (proj1 Hk)) as (ch & n & ty & E & N).
  exists ch, n, ty. split; auto.
Qed.

(* the same key-filter on all four lists keeps them compatible *)
Lemma compat_filter : forall (g : cident -> bool) P C P2 C2,
  compat P C P2 C2 ->
  compat (filter (fun p => g (fst p)) P) (filter (fun p => g (fst p)) C)
         (filter (fun p => g (fst p)) P2) (filter (fun p => g (fst p)) C2).
Proof.
  intros g P C P2 C2 (RP & RC & D).
  assert (I : forall n, In n (keys (filter (fun p => g (fst p)) P2) ++ keys (filter (fun p => g (fst p)) C2)) ->
                        In n (keys P2 ++ keys C2)).
  { intros n H. apply in_app_or in H. apply in_or_app. destruct H as [H|H]; apply keys_filter_in in H; auto. }
  split; [|split].
  - eapply rvar_filter; eauto.
  - eapply rvar_filter; eauto.
  - intros k Hk F. apply (D k (I k Hk)). apply in_app_or in F. apply in_or_app.
    destruct F as [F|F]; apply keys_filter_in in F; auto.
Qed.

Lemma filter_app' : forall (X : Type) (f : X -> bool) a b, filter f (a ++ b) = filter f a ++ filter f b.
Proof. induction a as [|x a IH]; simpl; intros b; [reflexivity|]. destruct (f x); simpl; rewrite IH; reflexivity. Qed.

Lemma mapr_compose : forall (X : Type) (f g h : X -> res X) (l l1 l2 : list X),
  Forall (fun a => forall a1 a2, f a = Ok a1 -> g a1 = Ok a2 -> h a = Ok a2) l ->
  mapr f l = Ok l1 -> mapr g l1 = Ok l2 -> mapr h l = Ok l2.
Proof.
  induction l as [|a l IH]; intros l1 l2 HF F G; simpl in F.
  - okinv F. simpl in G. okinv G. reflexivity.
  - inversion HF as [|? ? Ha Hl]; subst.
    apply rbind_ok in F. destruct F as (a1 & Fa & F). apply rbind_ok in F. destruct F as (r1 & Fr & F). okinv F.
    simpl in G. apply rbind_ok in G. destruct G as (a2 & Ga & G). apply rbind_ok in G. destruct G as (r2 & Gr & G). okinv G.
    simpl. rewrite (Ha _ _ Fa Ga). simpl. rewrite (IH _ _ Hl Fr Gr). reflexivity.
Qed.

Definition CPt (t : cterm) : Prop := forall c P C P2 C2 t1 t2,
  compat P C P2 C2 -> subst_term c t P C = Ok t1 -> subst_term c t1 P2 C2 = Ok t2 ->
  subst_term c t (P2 ++ P) (C2 ++ C) = Ok t2.
Definition CPa (a : carg) : Prop := forall P C P2 C2 a1 a2,
  compat P C P2 C2 -> subst_arg a P C = Ok a1 -> subst_arg a1 P2 C2 = Ok a2 ->
  subst_arg a (P2 ++ P) (C2 ++ C) = Ok a2.
Definition CPc (cl : cclause) : Prop := forall P C P2 C2 a1 a2,
  compat P C P2 C2 -> subst_clause cl P C = Ok a1 -> subst_clause a1 P2 C2 = Ok a2 ->
  subst_clause cl (P2 ++ P) (C2 ++ C) = Ok a2.
Definition CPs (s : cstmt) : Prop := forall P C P2 C2 s1 s2,
  compat P C P2 C2 -> subst_stmt s P C = Ok s1 -> subst_stmt s1 P2 C2 = Ok s2 ->
  subst_stmt s (P2 ++ P) (C2 ++ C) = Ok s2.

Lemma subst_compose_all : (forall t, CPt t) /\ (forall a, CPa a) /\ (forall c, CPc c) /\ (forall s, CPs s).
Proof.
  apply core_mutind.
  - (* XVar *)
    intros c' v ty c P C P2 C2 t1 t2 (RP & RC & D) H1 H2. simpl in H1.
    assert (G : forall S S2, rvar S (keys P2 ++ keys C2) -> (forall k, In k (keys S2) -> In k (keys P2 ++ keys C2)) ->
                (forall k, In k (keys S) -> In k (keys P ++ keys C)) ->
                match subst_find v S with None => Ok (CXVar c' v ty) | Some p => Ok p end = Ok t1 ->
                (forall ch n ty0, t1 = CXVar ch n ty0 ->
                   match subst_find n S2 with None => Ok t1 | Some p => Ok p end = Ok t2) ->
                match subst_find v (S2 ++ S) with None => Ok (CXVar c' v ty) | Some p => Ok p end = Ok t2).
    { intros S S2 RS I2 I1 E1 E2. rewrite subst_find_app.
      destruct (subst_find v S) as [p|] eqn:F.
      - okinv E1. destruct (subst_find_key _ _ _ F) as [Kv Iv].
        destruct (RS _ _ Iv) as (ch & n & ty0 & -> & Nn).
        assert (F2 : subst_find v S2 = None).
        { apply subst_find_none. intros Q. apply (D v (I2 _ Q)). apply I1. exact Kv. }
        rewrite F2.
        assert (F3 : subst_find n S2 = None) by (apply subst_find_none; intros Q; apply Nn; apply I2; exact Q).
        specialize (E2 _ _ _ eq_refl). rewrite F3 in E2. exact E2.
      - okinv E1. specialize (E2 _ _ _ eq_refl). destruct (subst_find v S2); exact E2. }
    destruct c; simpl.
    + apply (G P P2 RP); auto.
      * intros k Hk. apply in_or_app; auto.
      * intros k Hk. apply in_or_app; auto.
      * intros ch n ty0 ->. simpl in H2. exact H2.
    + apply (G C C2 RC); auto.
      * intros k Hk. apply in_or_app; auto.
      * intros k Hk. apply in_or_app; auto.
      * intros ch n ty0 ->. simpl in H2. exact H2.
  - (* Lit *)
    intros n c P C P2 C2 t1 t2 _ H1 H2. destruct c; simpl in *; [|discriminate]. okinv H1. simpl in H2. exact H2.
  - (* Op *)
    intros a o b Ha Hb c P C P2 C2 t1 t2 K H1 H2. destruct c; simpl in *; [|discriminate].
    rb H1 a1 E1. rb H1 b1 E2. okinv H1. simpl in H2. rb H2 a2 E3. rb H2 b2 E4. okinv H2.
    rewrite (Ha _ _ _ _ _ _ _ K E1 E3). simpl. rewrite (Hb _ _ _ _ _ _ _ K E2 E4). reflexivity.
  - (* Mu *)
    intros c' v s ty Hs c P C P2 C2 t1 t2 K H1 H2. simpl in *.
    rb H1 s1 E1. okinv H1. simpl in H2. rb H2 s2 E2. okinv H2.
    unfold subst_remove in *. rewrite !filter_app'.
    rewrite (Hs _ _ _ _ _ _ (compat_filter (fun k => negb (cident_eqb k v)) _ _ _ _ K) E1 E2). reflexivity.
  - (* Xtor *)
    intros c' x args ty HA c P C P2 C2 t1 t2 K H1 H2. simpl in *.
    rb H1 l1 E1. okinv H1. simpl in H2. rb H2 l2 E2. okinv H2.
    rewrite (mapr_compose _ (fun a => subst_arg a P C) (fun a => subst_arg a P2 C2) (fun a => subst_arg a (P2 ++ P) (C2 ++ C)) args l1 l2); auto.
    eapply Forall_impl; [|exact HA]. intros a Ha a1 a2 F1 F2. eapply Ha; eauto.
  - (* XCase *)
    intros c' cls ty HC c P C P2 C2 t1 t2 K H1 H2. simpl in *.
    rb H1 l1 E1. okinv H1. simpl in H2. rb H2 l2 E2. okinv H2.
    rewrite (mapr_compose _ (fun a => subst_clause a P C) (fun a => subst_clause a P2 C2) (fun a => subst_clause a (P2 ++ P) (C2 ++ C)) cls l1 l2); auto.
    eapply Forall_impl; [|exact HC]. intros a Ha a1 a2 F1 F2. eapply Ha; eauto.
  - (* Producer *)
    intros p Hp P C P2 C2 a1 a2 K H1 H2. simpl in *. rb H1 p1 E1. okinv H1. simpl in H2. rb H2 p2 E2. okinv H2.
    rewrite (Hp _ _ _ _ _ _ _ K E1 E2). reflexivity.
  - (* Consumer *)
    intros p Hp P C P2 C2 a1 a2 K H1 H2. simpl in *. rb H1 p1 E1. okinv H1. simpl in H2. rb H2 p2 E2. okinv H2.
    rewrite (Hp _ _ _ _ _ _ _ K E1 E2). reflexivity.
  - (* Clause *)
    intros c' x ctx b Hb P C P2 C2 a1 a2 K H1 H2. simpl in *.
    rb H1 b1 E1. okinv H1. simpl in H2. rb H2 b2 E2. okinv H2.
    unfold subst_remove_ctx in *. rewrite !filter_app'.
    rewrite (Hb _ _ _ _ _ _ (compat_filter (fun k => negb (existsb (cident_eqb k) (cvars ctx))) _ _ _ _ K) E1 E2). reflexivity.
  - (* Cut *)
    intros p ty k Hp Hk P C P2 C2 s1 s2 K H1 H2. simpl in *.
    rb H1 p1 E1. rb H1 k1 E2. okinv H1. simpl in H2. rb H2 p2 E3. rb H2 k2 E4. okinv H2.
    rewrite (Hp _ _ _ _ _ _ _ K E1 E3). simpl. rewrite (Hk _ _ _ _ _ _ _ K E2 E4). reflexivity.
  - (* IfC *)
    intros so a b t e Ha Hb Ht He P C P2 C2 s1 s2 K H1 H2. simpl in *.
    rb H1 a1 E1. rb H1 b1 E2. rb H1 t1 E3. rb H1 e1 E4. okinv H1. simpl in H2.
    rb H2 a2 F1. rb H2 b2 F2. rb H2 t2 F3. rb H2 e2 F4. okinv H2.
    rewrite (Ha _ _ _ _ _ _ _ K E1 F1). simpl.
    assert (EB : match b with None => Ok None | Some b0 => dor b3 <- subst_term CPrd b0 (P2 ++ P) (C2 ++ C); Ok (Some b3) end = Ok b2).
    { destruct b as [b0|].
      - rb E2 b01 E5. okinv E2. rb F2 b02 F5. okinv F2. simpl in Hb. rewrite (Hb _ _ _ _ _ _ _ K E5 F5). reflexivity.
      - okinv E2. okinv F2. reflexivity. }
    rewrite EB. simpl. rewrite (Ht _ _ _ _ _ _ K E3 F3). simpl. rewrite (He _ _ _ _ _ _ K E4 F4). reflexivity.
  - (* Print *)
    intros nl a next Ha Hn P C P2 C2 s1 s2 K H1 H2. simpl in *.
    rb H1 a1 E1. rb H1 n1 E2. okinv H1. simpl in H2. rb H2 a2 E3. rb H2 n2 E4. okinv H2.
    rewrite (Ha _ _ _ _ _ _ _ K E1 E3). simpl. rewrite (Hn _ _ _ _ _ _ K E2 E4). reflexivity.
  - (* Call *)
    intros f args ty HA P C P2 C2 s1 s2 K H1 H2. simpl in *.
    rb H1 l1 E1. okinv H1. simpl in H2. rb H2 l2 E2. okinv H2.
    rewrite (mapr_compose _ (fun a => subst_arg a P C) (fun a => subst_arg a P2 C2) (fun a => subst_arg a (P2 ++ P) (C2 ++ C)) args l1 l2); auto.
    eapply Forall_impl; [|exact HA]. intros a Ha a1 a2 F1 F2. eapply Ha; eauto.
  - (* Exit *)
    intros a ty Ha P C P2 C2 s1 s2 K H1 H2. simpl in *.
    rb H1 a1 E1. okinv H1. simpl in H2. rb H2 a2 E2. okinv H2.
    rewrite (Ha _ _ _ _ _ _ _ K E1 E2). reflexivity.
Qed.

Lemma subst_compose : forall s P C P2 C2 s1 s2,
  compat P C P2 C2 -> subst_stmt s P C = Ok s1 -> subst_stmt s1 P2 C2 = Ok s2 ->
  subst_stmt s (P2 ++ P) (C2 ++ C) = Ok s2.
Proof. intros s. exact (proj2 (proj2 (proj2 subst_compose_all)) s). Qed.
