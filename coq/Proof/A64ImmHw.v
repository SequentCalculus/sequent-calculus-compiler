(* AArch64 immediate synthesis, half-word level (DESIGN.md Appendix G): registers as four
   half-words; the MOVZ/MOVN/MOVK selection of axcut2aarch64::code::load_immediate leaves exactly
   the four half-words of the value, for every value. *)
From Coq Require Import List ZArith NArith Lia Bool.
Import ListNotations.
Open Scope Z_scope.

Definition B16 := 65536.            (* 2^16 *)
Definition M16 := 65535.            (* 0xFFFF *)

Definition hw4 := (Z * Z * Z * Z)%type.
Definition join (t : hw4) : Z := let '(a, b, c, d) := t in a + b * B16 + c * (B16 * B16) + d * (B16 * B16 * B16).
Definition inr16 (x : Z) := 0 <= x < B16.
Definition wf (t : hw4) := let '(a, b, c, d) := t in inr16 a /\ inr16 b /\ inr16 c /\ inr16 d.

Definition getn (t : hw4) (i : N) : Z :=
  let '(a, b, c, d) := t in match i with 0%N => a | 1%N => b | 2%N => c | _ => d end.
Definition setn (t : hw4) (i : N) (v : Z) : hw4 :=
  let '(a, b, c, d) := t in match i with 0%N => (v, b, c, d) | 1%N => (a, v, c, d) | 2%N => (a, b, v, d) | _ => (a, b, c, v) end.

Inductive ins := IMOVZ (imm : Z) (i : N) | IMOVN (imm : Z) (i : N) | IMOVK (imm : Z) (i : N).
Definition hstep (t : hw4) (x : ins) : hw4 :=
  match x with
  | IMOVZ imm i => setn (0, 0, 0, 0) i imm
  | IMOVN imm i => setn (M16, M16, M16, M16) i (M16 - imm)
  | IMOVK imm i => setn t i imm
  end.
Definition hexec (l : list ins) (t : hw4) : hw4 := fold_left hstep l t.

Definition bn (b : bool) : nat := if b then 1%nat else 0%nat.
Definition zeros (t : hw4) : nat :=
  let '(a, b, c, d) := t in
  (bn (Z.eqb a 0) + bn (Z.eqb b 0) + bn (Z.eqb c 0) + bn (Z.eqb d 0))%nat.
Definition ones (t : hw4) : nat :=
  let '(a, b, c, d) := t in
  (bn (Z.eqb a M16) + bn (Z.eqb b M16) + bn (Z.eqb c M16) + bn (Z.eqb d M16))%nat.

Fixpoint pieces (t : hw4) (invert : bool) (ignored : Z) (first_done : bool) (is : list N) : list ins :=
  match is with
  | [] => []
  | i :: r =>
      let h := getn t i in
      if h =? ignored then pieces t invert ignored first_done r
      else if first_done then IMOVK h i :: pieces t invert ignored true r
           else (if invert then IMOVN (M16 - h) i else IMOVZ h i) :: pieces t invert ignored true r
  end.

Definition hw_load_immediate (t : hw4) : list ins :=
  if (zeros t =? 4)%nat then [IMOVZ 0 0]
  else if (ones t =? 4)%nat then [IMOVN 0 0]
  else let invert := (zeros t <? ones t)%nat in
       pieces t invert (if invert then M16 else 0) false [0; 1; 2; 3]%N.

Lemma hexec_cons x l t : hexec (x :: l) t = hexec l (hstep t x).
Proof. reflexivity. Qed.

Lemma lt4 i : (i < 4)%N -> (i = 0 \/ i = 1 \/ i = 2 \/ i = 3)%N.
Proof. lia. Qed.

Lemma getn_setn_same t i v : getn (setn t i v) i = v.
Proof. destruct t as [[[a b] c] d]. destruct i as [|[[]|[]|]]; reflexivity. Qed.
Lemma getn_setn_other t i j v : (i < 4)%N -> (j < 4)%N -> i <> j -> getn (setn t i v) j = getn t j.
Proof.
  destruct t as [[[a b] c] d]. intros Hi Hj.
  destruct (lt4 i Hi) as [->|[->|[->| ->]]]; destruct (lt4 j Hj) as [->|[->|[->| ->]]];
    intros D; try reflexivity; now elim D.
Qed.
Lemma getn_const v j : getn (v, v, v, v) j = v.
Proof. destruct j as [|[[]|[]|]]; reflexivity. Qed.
Lemma hw4_ext t u : (forall j, (j < 4)%N -> getn t j = getn u j) -> t = u.
Proof.
  destruct t as [[[a b] c] d], u as [[[a' b'] c'] d']. intros E.
  pose proof (E 0%N eq_refl). pose proof (E 1%N eq_refl). pose proof (E 2%N eq_refl). pose proof (E 3%N eq_refl).
  cbn [getn] in *. congruence.
Qed.

(* all four half-words equal v exactly when the count is 4 *)
Lemma count4 (v a b c d : Z) :
  (bn (Z.eqb a v) + bn (Z.eqb b v) + bn (Z.eqb c v) + bn (Z.eqb d v) =? 4)%nat = true -> (a, b, c, d) = (v, v, v, v).
Proof.
  destruct (Z.eqb_spec a v), (Z.eqb_spec b v), (Z.eqb_spec c v), (Z.eqb_spec d v); cbn; try discriminate.
  intros _; subst; reflexivity.
Qed.
Lemma zeros4 t : (zeros t =? 4)%nat = true -> t = (0, 0, 0, 0).
Proof. destruct t as [[[a b] c] d]. apply count4. Qed.
Lemma ones4 t : (ones t =? 4)%nat = true -> t = (M16, M16, M16, M16).
Proof. destruct t as [[[a b] c] d]. apply count4. Qed.

(* The invariant of the walk over the positions `is`: the register already agrees with the
   target t at every position, except at positions still to come whose half-word is not the
   ignored one. *)
Definition settled (t cur : hw4) (ignored : Z) (is : list N) : Prop :=
  forall j, (j < 4)%N -> getn cur j = getn t j \/ (In j is /\ getn t j <> ignored).

Lemma settled_skip t cur ign i r : getn t i = ign -> settled t cur ign (i :: r) -> settled t cur ign r.
Proof.
  intros E S j Hj. destruct (S j Hj) as [G|([<-|I] & N)]; [now left|now elim N|now right].
Qed.
Lemma settled_set t cur ign i r : (i < 4)%N ->
  settled t cur ign (i :: r) -> settled t (setn cur i (getn t i)) ign r.
Proof.
  intros Hi S j Hj. destruct (N.eq_dec i j) as [<-|D]; [left; apply getn_setn_same|].
  rewrite getn_setn_other by assumption.
  destruct (S j Hj) as [G|([E|I] & N)]; [now left|now elim D|now right].
Qed.

Lemma movk_pieces_ok t invert ign is : Forall (fun i => (i < 4)%N) is ->
  forall cur, settled t cur ign is -> hexec (pieces t invert ign true is) cur = t.
Proof.
  induction 1 as [|i r Hi _ IH]; intros cur S; cbn [pieces].
  - apply hw4_ext. intros j Hj. destruct (S j Hj) as [G|([] & _)]. exact G.
  - destruct (Z.eqb_spec (getn t i) ign) as [E|_].
    + exact (IH cur (settled_skip _ _ _ _ _ E S)).
    + rewrite hexec_cons. apply IH, settled_set; assumption.
Qed.

(* The first piece emitted sets every other half-word to the ignored value (0 by MOVZ, 0xFFFF by
   MOVN); one is emitted unless all four half-words are the ignored one. *)
Lemma first_pieces_ok t (invert : bool) is t0 :
  let ign := if invert then M16 else 0 in
  Forall (fun i => (i < 4)%N) is ->
  settled t (ign, ign, ign, ign) ign is -> t <> (ign, ign, ign, ign) ->
  hexec (pieces t invert ign false is) t0 = t.
Proof.
  intros ign F S NE. induction F as [|i r Hi F IH]; cbn [pieces].
  - elim NE. apply hw4_ext. intros j Hj. destruct (S j Hj) as [G|([] & _)]. now rewrite G.
  - destruct (Z.eqb_spec (getn t i) ign) as [E|_].
    + exact (IH (settled_skip _ _ _ _ _ E S)).
    + rewrite hexec_cons.
      replace (hstep t0 _) with (setn (ign, ign, ign, ign) i (getn t i)).
      * apply movk_pieces_ok, settled_set; assumption.
      * subst ign. destruct invert; cbn [hstep]; f_equal; lia.
Qed.

Theorem hw_load_immediate_ok (t t0 : hw4) : hexec (hw_load_immediate t) t0 = t.
Proof.
  unfold hw_load_immediate.
  destruct (zeros t =? 4)%nat eqn:Z4; [now rewrite (zeros4 t Z4)|].
  destruct (ones t =? 4)%nat eqn:O4; [now rewrite (ones4 t O4)|].
  apply first_pieces_ok.
  - repeat constructor.
  - intros j Hj. destruct (Z.eq_dec (getn t j) (if (zeros t <? ones t)%nat then M16 else 0)) as [E|D].
    + left. now rewrite getn_const.
    + right. split; [|exact D]. cbn [In]. destruct (lt4 j Hj) as [->|[->|[->| ->]]]; auto.
  - destruct (zeros t <? ones t)%nat; intros ->; discriminate.
Qed.

(* the shape of the emitted list: a non-MOVK first, MOVKs afterwards *)
Definition is_movk (y : ins) : Prop := match y with IMOVK _ _ => True | _ => False end.
Definition movk_tail (l : list ins) : Prop :=
  match l with [] => True | x :: r => ~ is_movk x /\ Forall is_movk r end.

Lemma pieces_movk t invert ignored is : Forall is_movk (pieces t invert ignored true is).
Proof.
  induction is as [|i r IH]; cbn [pieces]; [constructor|].
  destruct (getn t i =? ignored); [exact IH|constructor; [exact I|exact IH]].
Qed.
Lemma pieces_shape t invert ignored is : movk_tail (pieces t invert ignored false is).
Proof.
  induction is as [|i r IH]; cbn [pieces]; [exact I|].
  destruct (getn t i =? ignored); [exact IH|].
  split; [destruct invert; exact (fun F => F)|apply pieces_movk].
Qed.
Lemma hw_load_immediate_shape t : movk_tail (hw_load_immediate t).
Proof.
  unfold hw_load_immediate.
  destruct (zeros t =? 4)%nat; [split; [exact (fun F => F)|constructor]|].
  destruct (ones t =? 4)%nat; [split; [exact (fun F => F)|constructor]|].
  apply pieces_shape.
Qed.
(* were the list empty, it would turn every register content into t *)
Lemma hw_load_immediate_nonempty t : hw_load_immediate t <> [].
Proof.
  intros E. pose proof (hw_load_immediate_ok t (0, 0, 0, 0)) as H1.
  pose proof (hw_load_immediate_ok t (M16, M16, M16, M16)) as H2.
  rewrite E in H1, H2. cbn in H1, H2. rewrite <- H1 in H2. discriminate H2.
Qed.
