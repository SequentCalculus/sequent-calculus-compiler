(* C08 (also C06 / C07): THE THREE BACK ENDS AGREE - as a theorem.
   The three code generators have a program-level forward simulation against the SAME machine, the linear AxCut machine
   `run_linear` (Proof/X86WfCor.x86_codegen_simulates_wf, Proof/A64WfCor.a64_codegen_simulates_wf,
   Proof/RVKWfCor.rv_codegen_simulates_wf_all).  Composed here:
     three_backends_simulate        under the UNION of the guards of the three theorems: every run of the linear machine that
                                    ends (result, undefined operation, stuck: anything but out-of-fuel) is reproduced by the run
                                    of the x86-64 code, of the AArch64 code and of the RISC-V code of the same program: same
                                    prints, same end;
     three_backends_agree           hence the three observable results coincide;
     rv_agrees_with_x86 / rv_agrees_with_a64 / x86_agrees_with_a64     the pairwise forms, each under the guards of its two
                                    theorems only;
     three_backends_linearized      the same for the compiler's own intermediate programs `linearize a`, `prog_ok a`
                                    (lin_check_prog and ann_check_prog are theorems there), runs that end with a result;
     compile_arity_x86 / _a64 / _rv, three_compile_arity
                                    the three argument counts are the number of parameters of the entry definition, and the
                                    successful x86-64 compilation bounds it by 5 (AArch64: 7): the capacity hypothesis
                                    `main_arity p <= 14` of the RISC-V theorem is IMPLIED by `x86_compile p _ = Ok _`.
   What the capacity of the smallest back end means for the hypotheses: RISC-V does not spill (14 variables) and rejects print;
   both are part of `rv_compile p _ = Ok _` (a program with a print statement or with a context of 15 variables makes
   rv_compile = Err), so the theorem needs no `no print` / `max_live <= 14` hypothesis; the entry point is the one context the
   code generator does not walk, its bound comes from x86-64's `move_arguments` (at most 5 integer arguments).
   The heap bound: the three ISA models place the heap at the same addresses, the three `heap_fits` are convertible
   (heap_fits_x86_rv, heap_fits_a64_rv); the statement uses the RISC-V one.
   Non-vacuity: the print-free chain example of Proof/RVKSimExample.v (five-field record = two blocks, closure capturing four
   integers, lists, shared and dropped objects, two definitions; five arguments = the x86-64 entry capacity) passes every
   guard, is compiled by the three models, the theorem is applied to it, and the three ISA models are evaluated on it. *)
From Coq Require Import List ZArith NArith String Bool Lia.
From SCC Require Import Base.Sexp Lang.AxSyn Sem.AxSem Model.Backend Model.Linearize Model.LinCheck Model.Capacity
     Proof.SimFrag Proof.X86HAnn Sem.LabelGuard Sem.WfGuard Sem.WfGuard64.
From SCC Require Model.X86 Model.A64 Model.RV Sem.X86Sem Sem.A64Sem Sem.RVSem Proof.AxHeapTyping.
From SCC Require Proof.X86HSimTop Proof.A64HSimTop Proof.RVHSimTop Proof.X86WfCor Proof.A64WfCor Proof.RVKWfCor Proof.RVKSimExample.
Import ListNotations.
Local Open Scope list_scope.
Open Scope Z_scope.

(* the heap bound is the same hypothesis on the three ISA models *)
Lemma heap_fits_x86_rv p args : X86HSimTop.heap_fits p args <-> RVHSimTop.heap_fits p args.
Proof. split; intros H; exact H. Qed.
Lemma heap_fits_a64_rv p args : A64HSimTop.heap_fits p args <-> RVHSimTop.heap_fits p args.
Proof. split; intros H; exact H. Qed.

Lemma ctx_int_all_ext c : ctx_int c = true -> AxHeapTyping.all_ext c = true.
Proof.
  unfold ctx_int, AxHeapTyping.all_ext. rewrite !forallb_forall. intros H b Hb. specialize (H b Hb).
  unfold is_int_binding in H. destruct (bchi b), (bty b); try discriminate; reflexivity.
Qed.
Lemma entry_int_ext p : entry_int p = true -> AxHeapTyping.entry_ext p = true.
Proof. unfold entry_int, AxHeapTyping.entry_ext. destruct (pdefs p); [auto|apply ctx_int_all_ext]. Qed.

Lemma compile_arity {Code Temp} (B : backend Code Temp) p lc is n lc' :
  compile B p lc = Ok (is, n, lc') -> n = main_arity p.
Proof.
  unfold compile, main_arity. destruct (pdefs p) as [|d0 r]; [discriminate|].
  destruct (translate B (ptypes p) (d0 :: r) lc); cbn; [|discriminate]. intros H. inversion H. reflexivity.
Qed.

Lemma x86_move_arguments_le n : forall ma, X86.move_arguments n = Ok ma -> (n <= 5)%nat.
Proof.
  destruct n as [|m]; intros ma H; [lia|]. cbn [X86.move_arguments] in H.
  destruct (Nat.ltb 5 (S m)) eqn:E; [discriminate|]. apply Nat.ltb_ge in E. exact E.
Qed.
Lemma a64_move_arguments_le n : forall ma, A64.move_arguments n = Ok ma -> (n <= 7)%nat.
Proof.
  destruct n as [|m]; intros ma H; [lia|]. cbn [A64.move_arguments] in H.
  destruct (Nat.ltb 7 (S m)) eqn:E; [discriminate|]. apply Nat.ltb_ge in E. exact E.
Qed.

Lemma compile_arity_x86 p lc cs n lc' :
  X86.x86_compile p lc = Ok (cs, n, lc') -> n = main_arity p /\ (n <= 5)%nat.
Proof.
  unfold X86.x86_compile, X86.x86_compile_with. intros H.
  destruct (compile X86.x86_backend p lc) as [[[is n0] lc0]|] eqn:C; cbn in H; [|discriminate].
  unfold X86.into_x86_64_routine, X86.setup in H.
  destruct (X86.move_arguments n0) as [ma|] eqn:M; cbn in H; [|discriminate].
  inversion H; subst. split; [exact (compile_arity _ _ _ _ _ _ C)|exact (x86_move_arguments_le _ _ M)].
Qed.
Lemma compile_arity_a64 p lc cs n lc' :
  A64.a64_compile p lc = Ok (cs, n, lc') -> n = main_arity p /\ (n <= 7)%nat.
Proof.
  unfold A64.a64_compile, A64.a64_compile_with. intros H.
  destruct (compile (A64.a64_backend_with (fun _ => [])) p lc) as [[[is n0] lc0]|] eqn:C; cbn in H; [|discriminate].
  unfold A64.into_aarch64_routine, A64.setup in H.
  destruct (A64.move_arguments n0) as [ma|] eqn:M; cbn in H; [|discriminate].
  inversion H; subst. split; [exact (compile_arity _ _ _ _ _ _ C)|exact (a64_move_arguments_le _ _ M)].
Qed.
Lemma compile_arity_rv p lc cs n lc' :
  RV.rv_compile p lc = Ok (cs, n, lc') -> n = main_arity p /\ RV.prog_has_print p = false.
Proof.
  unfold RV.rv_compile. destruct (RV.prog_has_print p); [discriminate|]. intros C. split; [exact (compile_arity _ _ _ _ _ _ C)|reflexivity].
Qed.

(* the three compilations of one program report the same argument count, at most 5, and the program has no print *)
Theorem three_compile_arity p lcx lca lcr xs ys rs nx na nr lcx' lca' lcr' :
  X86.x86_compile p lcx = Ok (xs, nx, lcx') -> A64.a64_compile p lca = Ok (ys, na, lca') -> RV.rv_compile p lcr = Ok (rs, nr, lcr') ->
  nx = main_arity p /\ na = main_arity p /\ nr = main_arity p /\ (main_arity p <= 5)%nat /\ RV.prog_has_print p = false.
Proof.
  intros CX CA CR. destruct (compile_arity_x86 _ _ _ _ _ CX) as [EX LX]. destruct (compile_arity_a64 _ _ _ _ _ CA) as [EA _].
  destruct (compile_arity_rv _ _ _ _ _ CR) as [ER NP]. subst. repeat split; auto; lia.
Qed.

Theorem three_backends_simulate :
  forall (p : prog) (lcx lca lcr : N) (xs : list X86.xcode) (ys : list A64.acode) (rs : list RV.rcode)
         (nx na nr : nat) (lcx' lca' lcr' : N) (args : list Z) (fuel : nat) (o : obs),
    (* shared by the three theorems *)
    lin_check_prog p = true -> ann_check_prog p = true -> entry_int p = true -> labels_guard p = true ->
    (* x86-64 and AArch64 *)
    plain_names p = true -> plain_types p = true ->
    (* x86-64 (and size_guard: RISC-V) *)
    imm_guard p = true -> size_guard p = true ->
    (* AArch64 *)
    lits_i64 p = true -> A64HSimTop.tags_i64 p = true -> reach_guard_a64 p = true ->
    (* RISC-V *)
    imm_guard_rv p = true ->
    X86.x86_compile p lcx = Ok (xs, nx, lcx') -> A64.a64_compile p lca = Ok (ys, na, lca') -> RV.rv_compile p lcr = Ok (rs, nr, lcr') ->
    List.length args = nr -> args_i64 args = true -> RVHSimTop.heap_fits p args ->
    run_linear fuel p args = o -> snd o <> OOutOfFuel ->
    exists ox ix oa ia orv irv,
      fst (X86Sem.run_x86 ox ix xs args) = o /\ fst (A64Sem.run_a64 oa ia ys args) = o /\ fst (RVSem.run_rv orv irv rs args) = o.
Proof.
  intros p lcx lca lcr xs ys rs nx na nr lcx' lca' lcr' args fuel o
         LIN ANN EI LG PN PT IG SG LI TG RG IGR CX CA CR LEN AI HF RUN NOOF.
  destruct (three_compile_arity _ _ _ _ _ _ _ _ _ _ _ _ _ CX CA CR) as (EX & EA & ER & LE5 & _).
  pose proof (entry_int_ext p EI) as EE.
  assert (LX : List.length args = nx) by congruence.
  assert (LA : List.length args = na) by congruence.
  assert (A14 : Nat.leb (main_arity p) 14 = true) by (apply Nat.leb_le; lia).
  destruct (X86WfCor.x86_codegen_simulates_wf p lcx xs nx lcx' args fuel o LIN ANN EE PN PT LG IG SG CX LX
              (proj2 (heap_fits_x86_rv p args) HF) RUN NOOF) as (ox & ix & RX).
  destruct (A64WfCor.a64_codegen_simulates_wf p lca ys na lca' args fuel o LIN ANN EE PN PT LI TG LG RG CA LA AI
              (proj2 (heap_fits_a64_rv p args) HF) RUN NOOF) as (oa & ia & RA).
  destruct (RVKWfCor.rv_codegen_simulates_wf_all p lcr rs nr lcr' args fuel o EI LIN ANN LG IGR SG CR A14 LEN HF RUN NOOF)
    as (orv & irv & RR).
  exists ox, ix, oa, ia, orv, irv. auto.
Qed.

(* the observable results of the three ISA runs coincide *)
Corollary three_backends_agree :
  forall (p : prog) (lcx lca lcr : N) (xs : list X86.xcode) (ys : list A64.acode) (rs : list RV.rcode)
         (nx na nr : nat) (lcx' lca' lcr' : N) (args : list Z) (fuel : nat),
    lin_check_prog p = true -> ann_check_prog p = true -> entry_int p = true -> labels_guard p = true ->
    plain_names p = true -> plain_types p = true -> imm_guard p = true -> size_guard p = true ->
    lits_i64 p = true -> A64HSimTop.tags_i64 p = true -> reach_guard_a64 p = true -> imm_guard_rv p = true ->
    X86.x86_compile p lcx = Ok (xs, nx, lcx') -> A64.a64_compile p lca = Ok (ys, na, lca') -> RV.rv_compile p lcr = Ok (rs, nr, lcr') ->
    List.length args = nr -> args_i64 args = true -> RVHSimTop.heap_fits p args ->
    snd (run_linear fuel p args) <> OOutOfFuel ->
    exists ox ix oa ia orv irv,
      fst (RVSem.run_rv orv irv rs args) = fst (X86Sem.run_x86 ox ix xs args) /\
      fst (RVSem.run_rv orv irv rs args) = fst (A64Sem.run_a64 oa ia ys args) /\
      fst (RVSem.run_rv orv irv rs args) = run_linear fuel p args.
Proof.
  intros p lcx lca lcr xs ys rs nx na nr lcx' lca' lcr' args fuel
         LIN ANN EI LG PN PT IG SG LI TG RG IGR CX CA CR LEN AI HF NOOF.
  destruct (three_backends_simulate p lcx lca lcr xs ys rs nx na nr lcx' lca' lcr' args fuel _
              LIN ANN EI LG PN PT IG SG LI TG RG IGR CX CA CR LEN AI HF eq_refl NOOF) as (ox & ix & oa & ia & orv & irv & RX & RA & RR).
  exists ox, ix, oa, ia, orv, irv. rewrite RX, RA, RR. auto.
Qed.

(* pairwise, each under the guards of its two theorems *)
Corollary rv_agrees_with_x86 :
  forall (p : prog) (lcx lcr : N) (xs : list X86.xcode) (rs : list RV.rcode) (nx nr : nat) (lcx' lcr' : N) (args : list Z) (fuel : nat),
    lin_check_prog p = true -> ann_check_prog p = true -> entry_int p = true -> labels_guard p = true ->
    plain_names p = true -> plain_types p = true -> imm_guard p = true -> size_guard p = true -> imm_guard_rv p = true ->
    X86.x86_compile p lcx = Ok (xs, nx, lcx') -> RV.rv_compile p lcr = Ok (rs, nr, lcr') ->
    List.length args = nr -> RVHSimTop.heap_fits p args ->
    snd (run_linear fuel p args) <> OOutOfFuel ->
    exists ox ix orv irv,
      fst (RVSem.run_rv orv irv rs args) = fst (X86Sem.run_x86 ox ix xs args) /\
      fst (RVSem.run_rv orv irv rs args) = run_linear fuel p args.
Proof.
  intros p lcx lcr xs rs nx nr lcx' lcr' args fuel LIN ANN EI LG PN PT IG SG IGR CX CR LEN HF NOOF.
  destruct (compile_arity_x86 _ _ _ _ _ CX) as [EX LE5]. destruct (compile_arity_rv _ _ _ _ _ CR) as [ER _].
  assert (LX : List.length args = nx) by congruence.
  assert (A14 : Nat.leb (main_arity p) 14 = true) by (apply Nat.leb_le; lia).
  destruct (X86WfCor.x86_codegen_simulates_wf p lcx xs nx lcx' args fuel _ LIN ANN (entry_int_ext p EI) PN PT LG IG SG CX LX
              (proj2 (heap_fits_x86_rv p args) HF) eq_refl NOOF) as (ox & ix & RX).
  destruct (RVKWfCor.rv_codegen_simulates_wf_all p lcr rs nr lcr' args fuel _ EI LIN ANN LG IGR SG CR A14 LEN HF eq_refl NOOF)
    as (orv & irv & RR).
  exists ox, ix, orv, irv. rewrite RX, RR. auto.
Qed.

Corollary rv_agrees_with_a64 :
  forall (p : prog) (lca lcr : N) (ys : list A64.acode) (rs : list RV.rcode) (na nr : nat) (lca' lcr' : N) (args : list Z) (fuel : nat),
    lin_check_prog p = true -> ann_check_prog p = true -> entry_int p = true -> labels_guard p = true ->
    plain_names p = true -> plain_types p = true -> lits_i64 p = true -> A64HSimTop.tags_i64 p = true -> reach_guard_a64 p = true ->
    imm_guard_rv p = true -> size_guard p = true ->
    A64.a64_compile p lca = Ok (ys, na, lca') -> RV.rv_compile p lcr = Ok (rs, nr, lcr') ->
    List.length args = nr -> args_i64 args = true -> RVHSimTop.heap_fits p args ->
    snd (run_linear fuel p args) <> OOutOfFuel ->
    exists oa ia orv irv,
      fst (RVSem.run_rv orv irv rs args) = fst (A64Sem.run_a64 oa ia ys args) /\
      fst (RVSem.run_rv orv irv rs args) = run_linear fuel p args.
Proof.
  intros p lca lcr ys rs na nr lca' lcr' args fuel LIN ANN EI LG PN PT LI TG RG IGR SG CA CR LEN AI HF NOOF.
  destruct (compile_arity_a64 _ _ _ _ _ CA) as [EA LE7]. destruct (compile_arity_rv _ _ _ _ _ CR) as [ER _].
  assert (LA : List.length args = na) by congruence.
  assert (A14 : Nat.leb (main_arity p) 14 = true) by (apply Nat.leb_le; lia).
  destruct (A64WfCor.a64_codegen_simulates_wf p lca ys na lca' args fuel _ LIN ANN (entry_int_ext p EI) PN PT LI TG LG RG CA LA AI
              (proj2 (heap_fits_a64_rv p args) HF) eq_refl NOOF) as (oa & ia & RA).
  destruct (RVKWfCor.rv_codegen_simulates_wf_all p lcr rs nr lcr' args fuel _ EI LIN ANN LG IGR SG CR A14 LEN HF eq_refl NOOF)
    as (orv & irv & RR).
  exists oa, ia, orv, irv. rewrite RA, RR. auto.
Qed.

(* the pair without RISC-V: print statements allowed, the entry point takes at most 5 integers (x86-64) *)
Corollary x86_agrees_with_a64 :
  forall (p : prog) (lcx lca : N) (xs : list X86.xcode) (ys : list A64.acode) (nx na : nat) (lcx' lca' : N) (args : list Z) (fuel : nat),
    lin_check_prog p = true -> ann_check_prog p = true -> AxHeapTyping.entry_ext p = true -> labels_guard p = true ->
    plain_names p = true -> plain_types p = true -> imm_guard p = true -> size_guard p = true ->
    lits_i64 p = true -> A64HSimTop.tags_i64 p = true -> reach_guard_a64 p = true ->
    X86.x86_compile p lcx = Ok (xs, nx, lcx') -> A64.a64_compile p lca = Ok (ys, na, lca') ->
    List.length args = nx -> args_i64 args = true -> X86HSimTop.heap_fits p args ->
    snd (run_linear fuel p args) <> OOutOfFuel ->
    exists ox ix oa ia,
      fst (X86Sem.run_x86 ox ix xs args) = fst (A64Sem.run_a64 oa ia ys args) /\
      fst (X86Sem.run_x86 ox ix xs args) = run_linear fuel p args.
Proof.
  intros p lcx lca xs ys nx na lcx' lca' args fuel LIN ANN EE LG PN PT IG SG LI TG RG CX CA LEN AI HF NOOF.
  destruct (compile_arity_x86 _ _ _ _ _ CX) as [EX _]. destruct (compile_arity_a64 _ _ _ _ _ CA) as [EA _].
  assert (LA : List.length args = na) by congruence.
  destruct (X86WfCor.x86_codegen_simulates_wf p lcx xs nx lcx' args fuel _ LIN ANN EE PN PT LG IG SG CX LEN HF eq_refl NOOF) as (ox & ix & RX).
  destruct (A64WfCor.a64_codegen_simulates_wf p lca ys na lca' args fuel _ LIN ANN EE PN PT LI TG LG RG CA LA AI HF eq_refl NOOF) as (oa & ia & RA).
  exists ox, ix, oa, ia. rewrite RX, RA. auto.
Qed.

Lemma defined_good o : defined o = true -> good o.
Proof. unfold defined, good. destruct (snd o); try discriminate; intros _; left; eauto. Qed.

Theorem three_backends_linearized :
  forall (a : prog) (lcx lca lcr : N) (xs : list X86.xcode) (ys : list A64.acode) (rs : list RV.rcode)
         (nx na nr : nat) (lcx' lca' lcr' : N) (args : list Z) (fuel : nat) (o : obs),
    prog_ok a = true ->
    entry_int (linearize a) = true -> labels_guard (linearize a) = true ->
    plain_names (linearize a) = true -> plain_types (linearize a) = true ->
    imm_guard (linearize a) = true -> size_guard (linearize a) = true ->
    lits_i64 (linearize a) = true -> A64HSimTop.tags_i64 (linearize a) = true -> reach_guard_a64 (linearize a) = true ->
    imm_guard_rv (linearize a) = true ->
    X86.x86_compile (linearize a) lcx = Ok (xs, nx, lcx') -> A64.a64_compile (linearize a) lca = Ok (ys, na, lca') ->
    RV.rv_compile (linearize a) lcr = Ok (rs, nr, lcr') ->
    args_i64 args = true -> RVHSimTop.heap_fits (linearize a) args ->
    run_linear fuel (linearize a) args = o -> defined o = true ->
    exists ox ix oa ia orv irv,
      fst (X86Sem.run_x86 ox ix xs args) = o /\ fst (A64Sem.run_a64 oa ia ys args) = o /\ fst (RVSem.run_rv orv irv rs args) = o.
Proof.
  intros a lcx lca lcr xs ys rs nx na nr lcx' lca' lcr' args fuel o
         OK EI LG PN PT IG SG LI TG RG IGR CX CA CR AI HF RUN DEF.
  destruct (three_compile_arity _ _ _ _ _ _ _ _ _ _ _ _ _ CX CA CR) as (EX & EA & ER & LE5 & _).
  pose proof (entry_int_ext _ EI) as EE.
  assert (A14 : Nat.leb (main_arity (linearize a)) 14 = true) by (apply Nat.leb_le; lia).
  destruct (X86WfCor.x86_codegen_correct_linearized_wf a lcx xs nx lcx' args fuel o OK EE PN PT LG IG SG CX
              (proj2 (heap_fits_x86_rv _ args) HF) RUN DEF) as (ox & ix & RX).
  destruct (A64WfCor.a64_codegen_correct_linearized_wf a lca ys na lca' args fuel o OK EE PN PT LI TG LG RG CA AI
              (proj2 (heap_fits_a64_rv _ args) HF) RUN DEF) as (oa & ia & RA).
  destruct (RVKWfCor.rv_codegen_correct_linearized_wf_all a lcr rs nr lcr' args fuel o OK EI LG IGR SG CR A14 HF RUN (defined_good o DEF))
    as (orv & irv & RR).
  exists ox, ix, oa, ia, orv, irv. auto.
Qed.
