(* C06, forward simulation, part 8: programs of the CLOSURE fragment - integers and closures without
   captured variables: Substitute / Call / Literal / Op / PrintI64 / IfC / Exit as in the integer fragment,
   plus `create v : T = (){…}` and `invoke v D`.  This covers the programs the pipeline produces for
   first-order tail-recursive integer functions (the return continuation passed to every call is such a
   closure).  `runs_create` and `runs_invoke` add the two new statements to the per-statement lemmas of
   Proof/X86SimProg.v; `sim_exec_cf` is the induction on the fuel, the relation instantiated with `clo_ok`
   (Proof/X86SimClo.v). *)
From Coq Require Import List ZArith NArith String Bool Lia FMapPositive.
From SCC Require Import Base.Sexp Lang.AxSyn Sem.AxSem Model.ParMoves Model.Backend Model.X86 Sem.X86Sem Sem.X86Wf
     Model.Linearize Model.LinCheck Generated.Constants Proof.LinBasics
     Proof.X86State Proof.X86Sel Proof.X86Exec Proof.X86ParMoves Proof.SubstGraph Proof.X86Subst
     Proof.X86SimRel Proof.X86SimStmt Proof.X86SimPrint Proof.X86SimAddr Proof.X86SimClo Proof.X86SimProg.
Import ListNotations.
Open Scope Z_scope.
Open Scope list_scope.
(* the definitions of Proof/SimFrag.v under this module's name, for qualified uses *)
Notation cf_frag := SimFrag.cf_frag (only parsing).


Section MainCf.
Variable im : image.
Variable p : prog.
Variable sp : Z.
Hypothesis IMG : img_ok im.
Hypothesis SMALL : forall pc a, PM.find pc (addr_of im) = Some a -> a < 4611686018427387904.
Hypothesis ENC : forall pc c, PM.find pc (code im) = Some c -> instr_wf c = true.
Hypothesis PLT : forall d, In d (ptypes p) -> is_hash_label (label_of_type_name (show_ident (tname d))) = false.
Notation CLO := (clo_ok im p).
Local Notation rel := (rel CLO).
Hypothesis DEFS : defs_at im p.
Hypothesis CLEAN : cleanup_at im.
Hypothesis LIN : forall d, In d (pdefs p) -> lin_check (sigs_of p) (dctx d) (dbody d) = true.
Hypothesis INT : forall d, In d (pdefs p) -> stmt_cf (dbody d) = true.

Notation runs := (runs im p sp CLO).

Lemma runs_create fuel v t env cls next :
  stmt_cf (Create v t env cls next) = true -> runs fuel next -> runs (S fuel) (Create v t env cls next).
Proof.
  intros SI IH c e ot st pc code lc lc' LC CS CA LA R OK <- G. cbn [exec_linear] in G |- *.
  destruct (stmt_cf_create v t env cls next SI) as (-> & NE & CFc & CFn).
  rewrite lin_check_create in LC. apply andb_true_iff in LC as [_ LC].
  cbn [List.length] in LC. unfold split_lastn in LC. cbn [Nat.leb] in LC. rewrite Nat.sub_0_r, firstn_all, skipn_all in LC.
  apply andb_true_iff in LC as [LC LCn]. apply andb_true_iff in LC as [LC LCc]. apply andb_true_iff in LC as [_ CO].
  assert (TN : exists tn, t = Decl tn).
  { unfold cls_ok, type_xtors in CO. destruct t as [|tn]; [discriminate|eauto]. }
  destruct TN as (tn & ->).
  cbn [ty_name List.length] in G |- *. unfold AxSem.split_last in G |- *. cbn [Nat.leb] in G |- *.
  rewrite Nat.sub_0_r, firstn_all, skipn_all in G |- *. cbn [env_ids map ids ids_eqb vars bind] in G |- *.
  assert (NHL : is_hash_label (type_label (Decl tn) (lc + 1)%N) = false).
  { unfold type_label. cbn [show_ty]. apply nh_sub_label.
    unfold cls_ok, type_xtors in CO. cbn [sigs_of sg_types] in CO.
    destruct (find (fun d => ident_eqb (tname d) tn) (ptypes p)) as [d|] eqn:FD; [|discriminate].
    apply find_some in FD as [IN EQ]. apply ident_eqb_eq in EQ. subst tn. exact (PLT d IN). }
  assert (STAT : forall cl, In cl cls -> lin_check (sigs_of p) (cl_ctx cl) (cl_body cl) = true /\ stmt_cf (cl_body cl) = true /\ ctx_cf (cl_ctx cl) = true).
  { intros cl Hcl. unfold lin_clauses_cr in LCc. rewrite forallb_forall in LCc. specialize (LCc cl Hcl). rewrite app_nil_r in LCc.
    unfold clauses_cf in CFc. rewrite forallb_forall in CFc. specialize (CFc cl Hcl). apply andb_true_iff in CFc as [A B]. auto. }
  destruct (sim_create im p IMG SMALL c e st sp v tn cls next lc code lc' pc R (lin_nodup _ _ _ LCn) CS CA LA NHL NE CFn CO STAT)
    as (c12 & c3 & lc3 & rest & s' & -> & NX & E & R' & FE).
  apply code_at_app in CA as [CA1 CA2]. apply code_at_app in CA2 as [CA2 _].
  apply labels_at_nh_app in LA as [_ LA2]. apply labels_at_nh_app in LA2 as [LA2 _].
  eapply exec_to_finishes; [apply (exec_straight_exec_to im _ pc st s' CA1 E)|].
  exact (runs_next im p sp CLO fuel next _ _ st s' _ c3 _ lc3 IH LCn NX CA2 LA2 R' FE OK G).
Qed.

Lemma runs_invoke fuel v tag t args :
  (forall s, stmt_cf s = true -> runs fuel s) -> runs (S fuel) (Invoke v tag t args).
Proof.
  intros IH c e ot st pc code lc lc' LC CS CA LA R OK <- G. cbn [exec_linear] in G |- *.
  destruct (invoke_progress im p c e st sp v tag t args R LC) as (e0 & x & tn & cls & cl & e1 & SL & IDX & FC & BD).
  rewrite SL, IDX, FC, BD in G |- *.
  destruct (sim_invoke im p ENC c e st sp v tag t args code lc lc' pc e0 x tn cls [] cl e1 R SL IDX FC BD LC CS CA)
    as (pcb & lcb & cb & lcb' & s' & X & CSb & CAb & LAb & LCb & CFb & CXb & R' & FE).
  eapply exec_to_finishes; [exact X|].
  exact (runs_next im p sp CLO fuel (cl_body cl) (cl_ctx cl) _ st s' pcb cb lcb lcb' (IH _ CFb) LCb CSb CAb LAb R' FE OK G).
Qed.

Lemma runs_cf : forall fuel s, stmt_cf s = true -> runs fuel s.
Proof.
  induction fuel as [|fuel IH]; intros s SI; [apply runs_0|].
  destruct s; try (cbn [stmt_cf] in SI; discriminate).
  - cbn [stmt_cf] in SI. apply andb_true_iff in SI as [_ SI]. auto using runs_substitute.
  - apply (runs_call im p sp CLO DEFS LIN). auto.
  - apply (runs_create fuel _ _ _ _ _ SI), IH. now destruct (stmt_cf_create _ _ _ _ _ SI) as (_ & _ & _ & CFn).
  - apply runs_invoke, IH.
  - auto using runs_literal.
  - auto using runs_op.
  - auto using runs_print.
  - cbn [stmt_cf] in SI. apply andb_true_iff in SI as [SI1 SI2]. auto using runs_ifc.
  - apply (runs_exit im p sp CLO CLEAN).
Qed.

Lemma sim_exec_cf : forall fuel s c e ot st pc code lc lc',
  stmt_cf s = true -> lin_check (sigs_of p) c s = true ->
  xcs (ptypes p) s c lc = Ok (code, lc') -> code_at im pc code -> labels_at_nh im pc code ->
  rel c e st sp -> outer_ok st sp -> out st = ot ->
  not_oof (exec_linear fuel p e s ot) -> finishes im pc st (exec_linear fuel p e s ot).
Proof. intros fuel s c e ot st pc code lc lc' SI. now apply runs_cf. Qed.
End MainCf.
