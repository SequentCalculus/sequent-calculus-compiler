(* C08, all statement forms, without the two hypotheses that were only CHECKED on the emitted code (`asm_wf cs = None`,
   `code_small cs = true`): both are theorems (Proof/RVWfAll.v) under boolean guards on the PROGRAM handed to the code
   generator (Sem/LabelGuard.v, Sem/WfGuard64.v, Sem/WfGuard.v), as in Proof/RVWfCor.v:
     labels_guard    the label texts are unambiguous (known finding label-collision-name-digits outside it)
     imm_guard_rv    literals are 64-bit values (`LI`), a type declares at most 512 xtors (`ADDI X1, Xt, 4k`: a real
                     limit of the back end)
     size_guard      cg_bound_defs <= 2^40 (the code fits the image)
   No fragment predicate is left (Proof/RVKFrag.v). *)
From Coq Require Import List ZArith NArith String Bool Lia.
From SCC Require Import Base.Sexp Lang.AxSyn Sem.AxSem Sem.AxHeap Model.Backend Model.RV Sem.RVSem Sem.RVWf
     Model.Linearize Model.LinCheck Model.Capacity Proof.LinearizeProof Proof.RVSimAddr Proof.RVSimRel Proof.RVSimTop
     Proof.RVKFrag Proof.X86HAnn Proof.X86HAnnLin Proof.RVHSimTop Proof.RVKSimTop Proof.RVKSimCor Proof.RVKSimExample
     Sem.LabelGuard Sem.WfGuard Sem.WfGuard64 Proof.RVWfAll.
From SCC Require Model.Heap Proof.X86SimProg Proof.X86WfCor.
Import ListNotations.
Local Open Scope list_scope.
Open Scope Z_scope.

Theorem rv_codegen_simulates_wf_all p lc cs n lc' args fuel o :
  SimFrag.entry_int p = true -> lin_check_prog p = true -> ann_check_prog p = true ->
  labels_guard p = true -> imm_guard_rv p = true -> size_guard p = true ->
  rv_compile p lc = Ok (cs, n, lc') ->
  Nat.leb (main_arity p) 14 = true -> List.length args = n -> heap_fits p args ->
  run_linear fuel p args = o -> snd o <> OOutOfFuel ->
  exists outer inner, fst (run_rv outer inner cs args) = o.
Proof.
  intros EI LIN ANN LG IG SG XC.
  apply (rv_codegen_simulates_all p lc cs n lc' args fuel o EI LIN ANN XC).
  - exact (rv_compile_asm_wf p lc cs n lc' LG LIN IG XC).
  - exact (rv_compile_code_small p lc cs n lc' LIN SG XC).
Qed.

Corollary rv_codegen_correct_linearized_wf_all a lc cs n lc' args fuel o :
  prog_ok a = true ->
  SimFrag.entry_int (linearize a) = true ->
  labels_guard (linearize a) = true -> imm_guard_rv (linearize a) = true -> size_guard (linearize a) = true ->
  rv_compile (linearize a) lc = Ok (cs, n, lc') ->
  Nat.leb (main_arity (linearize a)) 14 = true -> heap_fits (linearize a) args ->
  run_linear fuel (linearize a) args = o -> SimFrag.good o ->
  exists outer inner, fst (run_rv outer inner cs args) = o.
Proof.
  intros OK EI LG IG SG XC. pose proof (linearize_exact a OK) as LIN.
  apply (rv_codegen_correct_linearized a lc cs n lc' args fuel o OK EI XC).
  - exact (rv_compile_asm_wf _ lc cs n lc' LG LIN IG XC).
  - exact (rv_compile_code_small _ lc cs n lc' LIN SG XC).
Qed.

(* the hypotheses are satisfiable: the chain example passes every guard *)
Lemma rk_lin_guards_rv : labels_guard rk_lin = true /\ imm_guard_rv rk_lin = true /\ size_guard rk_lin = true.
Proof. vm_compute. repeat split; reflexivity. Qed.

Lemma rk_simulated_wf : exists outer inner, fst (run_rv outer inner rk_code rk_args) = run_linear 2000 rk_lin rk_args.
Proof.
  destruct rk_hypotheses as (H1 & H2 & H3 & (lc' & H5) & H6 & H7 & H8 & H9).
  destruct rk_lin_guards_rv as (G1 & G2 & G3).
  refine (rv_codegen_simulates_wf_all rk_lin 0 rk_code 5 lc' rk_args 2000 _ H1 H2 H3 G1 G2 G3 H5 H8 eq_refl
            (fits_run_sound 2000 _ _ H9) eq_refl _).
  vm_compute. discriminate.
Qed.
