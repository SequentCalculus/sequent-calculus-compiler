(* Proof/Fun2CoreInv  -  the static side of the simulation proof for fun2core:
   - inversion lemmas for the translation combinators (those of the state monad and of the translation of a
     definition, [compile_def_inv] and [compile_main_inv], are in Fun2CoreProof.v);
   - lemmas about the predicates of Model/Fun2CoreGuard.v (re-exported here): the names [nm] and binders [bnd]
     of a source term, scopes [gl], the scope check of a variable. *)
From Coq Require Import List ZArith NArith String Bool Lia.
From SCC Require Import Proof.CoreInd.
From SCC Require Import Base.Sexp Lang.SynUtil Lang.FunSyn Lang.FunTy Lang.CoreSyn.
From SCC Require Import Sem.AxSem Sem.FunSem Model.Fun2Core Proof.Fun2CoreProof Proof.Fun2CoreTfv.
From SCC Require Export Model.Fun2CoreGuard.
Import ListNotations.
Open Scope string_scope.
Open Scope list_scope.

Lemma cid_eqb_new_id : forall a b, cident_eqb (new_id a) (new_id b) = String.eqb a b.
Proof. intros a b. unfold cident_eqb, new_id. simpl. apply andb_true_r. Qed.
Lemma cchi_eqb_eq : forall a b, cchi_eqb a b = true <-> a = b.
Proof. intros [|] [|]; simpl; split; congruence. Qed.
Lemma cty_eqb_eq : forall a b, cty_eqb a b = true <-> a = b.
Proof.
  intros [|x] [|y]; simpl; try (split; congruence).
  rewrite cident_eqb_eq. split; congruence.
Qed.
Lemma cbinding_eqb_eq : forall a b, cbinding_eqb a b = true <-> a = b.
Proof.
  intros [a1 a2 a3] [b1 b2 b3]. unfold cbinding_eqb. simpl.
  rewrite !andb_true_iff, cident_eqb_eq, cchi_eqb_eq, cty_eqb_eq.
  split; [intros [[H1 H2] H3]; subst; reflexivity | intros H; injection H as H1 H2 H3; auto].
Qed.
Lemma str_list_eqb_eq : forall a b : list string, list_eqb String.eqb a b = true -> a = b.
Proof.
  induction a as [|x a IH]; intros [|y b]; simpl; intros H; try discriminate; [reflexivity|].
  apply andb_prop in H. destruct H as [H1 H2]. apply String.eqb_eq in H1. apply IH in H2. subst. reflexivity.
Qed.

(* fresh names: what a draw does to the state *)
Lemma fresh_in_vars_inv : forall base st x st',
  fresh_in_vars base st = Ok (x, st') ->
  ~ In x (st_used_vars st) /\ st_used_vars st' = x :: st_used_vars st /\
  st_used_labels st' = st_used_labels st /\ st_lifted st' = st_lifted st.
Proof.
  intros base st x st' H. unfold fresh_in_vars in H.
  pose proof (fresh_name_fresh (st_used_vars st) base) as [Hf Hs].
  destruct (fresh_name (st_used_vars st) base) as [nm used'] eqn:E. simpl in *.
  injection H as H1 H2. subst. simpl. auto.
Qed.
Lemma fresh_label_inv : forall base st x st',
  fresh_label base st = Ok (x, st') ->
  st_used_vars st' = st_used_vars st /\ st_lifted st' = st_lifted st.
Proof.
  intros base st x st' H. unfold fresh_label in H.
  destruct (fresh_name (st_used_labels st) base) as [nm used']. injection H as H1 H2. subst. simpl. auto.
Qed.

Lemma find_def_in : forall p f d, ffind_def p f = Some d -> In d (fcpdefs p) /\ fdname d = f.
Proof.
  intros p f d H. unfold ffind_def in H. apply find_some in H. destruct H as [H1 H2].
  apply String.eqb_eq in H2. auto.
Qed.

Lemma grows_vars_incl : forall st st', grows st st' -> incl (st_used_vars st) (st_used_vars st').
Proof. intros st st' [[g [E _]] _] x Hx. rewrite E. apply in_or_app. right. exact Hx. Qed.
Lemma grows_lifted_incl : forall st st', grows st st' -> incl (st_lifted st) (st_lifted st').
Proof. intros st st' [_ [g [l [_ [_ [E _]]]]]] x Hx. rewrite E. apply in_or_app. right. exact Hx. Qed.
Lemma wc_grows : forall codata cur lg t cont st s st', wc codata cur lg t cont st = Ok (s, st') -> grows st st'.
Proof. intros. eapply (proj1 (wc_cmp_grows codata cur lg t)); eauto. Qed.
Lemma cmp_grows : forall codata cur lg t ty st c st', cmp codata cur lg t ty st = Ok (c, st') -> grows st st'.
Proof. intros. eapply (proj2 (wc_cmp_grows codata cur lg t)); eauto. Qed.
Lemma share_grows : forall cur cont st k st', share cur cont st = Ok (k, st') -> grows st st'.
Proof. intros. eapply mgrows_share; eauto. Qed.
Lemma subst_with_grows : forall codata cur lg args st l st',
  subst_with (fun y => cmp codata cur lg y) args st = Ok (l, st') -> grows st st'.
Proof. intros codata cur lg args. apply mgrows_subst_with. apply Forall_forall. intros a _. apply wc_cmp_grows. Qed.
Lemma clauses_with_grows : forall codata cur lg cont cls st l st',
  clauses_with (fun b => wc codata cur lg b) cont cls st = Ok (l, st') -> grows st st'.
Proof. intros codata cur lg cont cls. apply mgrows_clauses_with. apply Forall_forall. intros c _. apply wc_cmp_grows. Qed.
Lemma coclauses_with_grows : forall codata cur lg cls st l st',
  coclauses_with (fun b => wc codata cur lg b) cls st = Ok (l, st') -> grows st st'.
Proof. intros codata cur lg cls. apply mgrows_coclauses_with. apply Forall_forall. intros c _. apply wc_cmp_grows. Qed.

Definition is_mu (c : cterm) : bool := match c with CMu _ _ _ _ => true | _ => false end.
Lemma share_inv : forall cur cont st k st', share cur cont st = Ok (k, st') ->
  exists var ty body stv name,
    (match cont with
     | CMu _ v s t => var = v /\ ty = t /\ body = s /\ stv = st
     | _ => exists x, fresh_var st = Ok (x, stv) /\ var = new_id x /\ ty = cterm_type cont /\
                      body = CCut (CXVar CPrd (new_id x) ty) ty cont
     end) /\
    st_used_vars st' = st_used_vars stv /\
    st_lifted st' = mkcd (new_id name) (tfv_stmt body []) body :: st_lifted stv /\
    k = CMu CCns var (CCall (new_id name) (map arg_of_binding (tfv_stmt body [])) ty) ty.
Proof.
  intros cur cont st k st' H.
  destruct (share_spec _ _ _ _ _ H) as [var [ty [body [stv [name [n [Hm [_ [_ [Hv [_ [Hl [Hd Hk]]]]]]]]]]]]].
  exists var, ty, body, stv, name. rewrite Hl. auto.
Qed.

Lemma incl_flat_map : forall (X : Type) (f g : X -> list string) l,
  Forall (fun a => incl (f a) (g a)) l -> incl (flat_map f l) (flat_map g l).
Proof.
  intros X f g l H z Hz. apply in_flat_map in Hz. destruct Hz as [a [Ha Hz]]. apply in_flat_map. exists a.
  rewrite Forall_forall in H. split; [exact Ha | exact (H a Ha z Hz)].
Qed.
Lemma bnd_nm : forall t, incl (bnd t) (nm t).
Proof.
  assert (Hcls : forall cls, Forall (fun c => incl (bnd (clause_body c)) (nm (clause_body c))) cls ->
            incl (flat_map cl_bnd cls) (flat_map cl_nm cls)).
  { intros cls H. apply incl_flat_map. eapply Forall_impl; [|exact H].
    intros [pl x names ctx body] Hb. apply incl_app_app; [apply incl_refl | exact Hb]. }
  induction t using fterm_ind'; simpl; try apply incl_nil_l; try assumption.
  - apply incl_app_app; assumption.
  - repeat apply incl_app_app; try assumption. destruct b; [exact H | apply incl_refl].
  - apply incl_app_app; assumption.
  - apply incl_cons; [left; reflexivity | apply incl_tl; apply incl_app_app; assumption].
  - apply incl_flat_map. exact H.
  - apply incl_flat_map. exact H.
  - apply incl_app_app; [assumption | apply incl_flat_map; exact H].
  - apply incl_app_app; [assumption | apply Hcls; exact H].
  - apply Hcls. exact H.
  - apply incl_cons; [left; reflexivity | apply incl_tl; assumption].
  - apply incl_tl. assumption.
Qed.

Lemma default_compile_inv : forall w ty st c st',
  default_compile w ty st = Ok (c, st') ->
  exists a sta s, fresh_covar st = Ok (a, sta) /\ w (CXVar CCns (new_id a) ty) sta = Ok (s, st') /\
                  c = CMu CPrd (new_id a) s ty.
Proof.
  intros w ty st c st' H. unfold default_compile in H. minv H. minv H. apply mret_inv in H. destruct H; subst.
  eauto 8.
Qed.
Lemma wc_var_inv : forall v ty cont st s st', wc_var v ty cont st = Ok (s, st') ->
  exists ty0, ty = Some ty0 /\ s = CCut (CXVar CPrd (new_id v) (compile_ty ty0)) (compile_ty ty0) cont /\ st' = st.
Proof.
  intros v ty cont st s st' H. unfold wc_var in H. minv H. apply mlift_inv in E. destruct E as [E ->].
  apply expect_ty_inv in E. apply mret_inv in H. destruct H; subst. eauto.
Qed.
Lemma cmp_var_inv : forall v ty st c st', cmp_var v ty st = Ok (c, st') ->
  exists ty0, ty = Some ty0 /\ c = CXVar CPrd (new_id v) (compile_ty ty0) /\ st' = st.
Proof.
  intros v ty st c st' H. unfold cmp_var in H. minv H. apply mlift_inv in E. destruct E as [E ->].
  apply expect_ty_inv in E. apply mret_inv in H. destruct H; subst. eauto.
Qed.
Lemma cmp_op_inv : forall ca o cb st c st', cmp_op ca o cb st = Ok (c, st') ->
  exists a st1 b, ca st = Ok (a, st1) /\ cb st1 = Ok (b, st') /\ c = COp a (op_of o) b.
Proof.
  intros ca o cb st c st' H. unfold cmp_op in H. minv H. minv H. apply mret_inv in H. destruct H; subst. eauto 8.
Qed.
Lemma wc_op_inv : forall ca o cb cont st s st', wc_op ca o cb cont st = Ok (s, st') ->
  exists a st1 b, ca st = Ok (a, st1) /\ cb st1 = Ok (b, st') /\ s = CCut (COp a (op_of o) b) CI64 cont.
Proof.
  intros ca o cb cont st s st' H. unfold wc_op in H. minv H. apply mret_inv in H. destruct H; subst.
  apply cmp_op_inv in E. destruct E as [a [st1 [b [E1 [E2 E3]]]]]. subst. eauto 8.
Qed.
Lemma wc_ifc_inv : forall cur so ca cb wt we cont st r st',
  wc_ifc cur so ca cb wt we cont st = Ok (r, st') ->
  exists cont1 st0 a sta b stb t stt e,
    (if cont_is_small cont then cont1 = cont /\ st0 = st else share cur cont st = Ok (cont1, st0)) /\
    ca st0 = Ok (a, sta) /\
    (match cb with
     | Some cb' => exists b', cb' sta = Ok (b', stb) /\ b = Some b'
     | None => b = None /\ stb = sta
     end) /\
    wt cont1 stb = Ok (t, stt) /\ we cont1 stt = Ok (e, st') /\ r = CIfC (sort_of so) a b t e.
Proof.
  intros cur so ca cb wt we cont st r st' H. unfold wc_ifc in H.
  minv H. minv H. minv H. minv H. minv H. apply mret_inv in H. destruct H; subst.
  exists x, st0, x0, st1, x1, st2, x2, st3, x3. repeat split; auto.
  - destruct (cont_is_small cont); [apply mret_inv in E; destruct E; subst; auto | exact E].
  - destruct cb as [cb'|].
    + minv E1. apply mret_inv in E1. destruct E1; subst. eauto.
    + apply mret_inv in E1. destruct E1; subst. auto.
Qed.
Lemma wc_print_inv : forall nl ca wnext cont st s st', wc_print nl ca wnext cont st = Ok (s, st') ->
  exists a st1 next, ca st = Ok (a, st1) /\ wnext cont st1 = Ok (next, st') /\ s = CPrint nl a next.
Proof.
  intros nl ca wnext cont st s st' H. unfold wc_print in H. minv H. minv H. apply mret_inv in H. destruct H; subst.
  eauto 8.
Qed.
Lemma wc_let_inv : forall codata v vty cbound wbound wbody cont st s st',
  wc_let codata v vty cbound wbound wbody cont st = Ok (s, st') ->
  ty_is_codata codata (compile_ty vty) = false ->
  exists body st1, wbody cont st = Ok (body, st1) /\
                   wbound (CMu CCns (new_id v) body (compile_ty vty)) st1 = Ok (s, st').
Proof.
  intros codata v vty cbound wbound wbody cont st s st' H Hc. unfold wc_let in H. minv H. rewrite Hc in H. eauto.
Qed.
Lemma wc_let_inv_codata : forall codata v vty cbound wbound wbody cont st s st',
  wc_let codata v vty cbound wbound wbody cont st = Ok (s, st') ->
  ty_is_codata codata (compile_ty vty) = true ->
  exists body st1 pb, wbody cont st = Ok (body, st1) /\ cbound (compile_ty vty) st1 = Ok (pb, st') /\
                      s = CCut pb (compile_ty vty) (CMu CCns (new_id v) body (compile_ty vty)).
Proof.
  intros codata v vty cbound wbound wbody cont st s st' H Hc. unfold wc_let in H. minv H. rewrite Hc in H.
  minv H. apply mret_inv in H. destruct H; subst. eauto 8.
Qed.
Lemma cmp_new_inv : forall ccls ty st c st', cmp_new ccls ty st = Ok (c, st') ->
  exists cls ty0, ccls st = Ok (cls, st') /\ ty = Some ty0 /\ c = CXCase CPrd cls (compile_ty ty0).
Proof.
  intros ccls ty st c st' H. unfold cmp_new in H. minv H. minv H.
  apply expect_inv in E0. destruct E0 as [E0 ->].
  apply mret_inv in H. destruct H; subst. eauto 8.
Qed.
Lemma wc_new_inv : forall ccls ty cont st s st', wc_new ccls ty cont st = Ok (s, st') ->
  exists cls ty0, ccls st = Ok (cls, st') /\ ty = Some ty0 /\
                  s = CCut (CXCase CPrd cls (compile_ty ty0)) (compile_ty ty0) cont.
Proof.
  intros ccls ty cont st s st' H. unfold wc_new in H. apply cut_at_inv in H. destruct H as [ty0 [p [-> [E ->]]]].
  apply cmp_new_inv in E. destruct E as [cls [ty1 [E1 [E2 ->]]]]. injection E2 as <-. eauto.
Qed.
Lemma compile_coclause_inv : forall x ctx body_ty wbody st c st',
  compile_coclause x ctx body_ty wbody st = Ok (c, st') ->
  exists ty0 a sta body, body_ty = Some ty0 /\ fresh_covar st = Ok (a, sta) /\
    wbody (CXVar CCns (new_id a) (compile_ty ty0)) sta = Ok (body, st') /\
    c = CClause CPrd (new_id x) (compile_ctx ctx ++ [mkcb (new_id a) CCns (compile_ty ty0)]) body.
Proof.
  intros x ctx body_ty wbody st c st' H. unfold compile_coclause in H. minv H.
  apply expect_inv in E. destruct E as [E ->]. minv H. minv H.
  apply mret_inv in H. destruct H; subst. eauto 10.
Qed.
Lemma coclauses_with_cons_inv : forall wcf pl x names ctx body r st l st',
  coclauses_with wcf (FClause pl x names ctx body :: r) st = Ok (l, st') ->
  exists c st1 rest, compile_coclause x ctx (fterm_type body) (wcf body) st = Ok (c, st1) /\
                     coclauses_with wcf r st1 = Ok (rest, st') /\ l = c :: rest.
Proof.
  intros wcf pl x names ctx body r st l st' H. simpl in H. minv H. minv H. apply mret_inv in H. destruct H; subst.
  eauto 8.
Qed.
Lemma wc_dtor_inv : forall wscrut sty x cargs cont st s st', wc_dtor wscrut sty x cargs cont st = Ok (s, st') ->
  exists args st1 sty0, cargs st = Ok (args, st1) /\ sty = Some sty0 /\
    wscrut (CXtor CCns (new_id x) (args ++ [CConsumer cont]) (compile_ty sty0)) st1 = Ok (s, st').
Proof.
  intros wscrut sty x cargs cont st s st' H. unfold wc_dtor in H. minv H. minv H.
  apply expect_inv in E0. destruct E0 as [E0 ->]. eauto 8.
Qed.
Lemma guard_capture_inv : forall binders w ty cont st s st',
  guard_capture false binders w ty cont st = Ok (s, st') ->
  (captures binders cont = false /\ w cont st = Ok (s, st')) \/
  (captures binders cont = true /\
   exists ty0 a sta s0,
     ty = Some ty0 /\ fresh_covar st = Ok (a, sta) /\
     captures binders (CXVar CCns (new_id a) (compile_ty ty0)) = false /\
     w (CXVar CCns (new_id a) (compile_ty ty0)) sta = Ok (s0, st') /\
     s = CCut (CMu CPrd (new_id a) s0 (compile_ty ty0)) (compile_ty ty0) cont).
Proof.
  intros binders w ty cont st s st' H. unfold guard_capture in H.
  destruct (captures binders cont) eqn:Ec; [right | left; auto]. split; [reflexivity|].
  minv H. apply expect_inv in E. destruct E as [E ->]. minv H. minv H.
  apply mret_inv in H. destruct H; subst.
  destruct (captures binders (CXVar CCns (new_id x0) (compile_ty x))) eqn:Ec2; [discriminate E1|].
  exists x, x0, st0, x1. repeat split; auto.
Qed.
Lemma guard_capture_legacy : forall binders w ty cont, guard_capture true binders w ty cont = w cont.
Proof. reflexivity. Qed.
Lemma wc_call_inv : forall f cargs ret cont st s st', wc_call f cargs ret cont st = Ok (s, st') ->
  exists args ret0, cargs st = Ok (args, st') /\ ret = Some ret0 /\
                    s = CCall (new_id f) (args ++ [CConsumer cont]) (compile_ty ret0).
Proof.
  intros f cargs ret cont st s st' H. unfold wc_call in H. minv H. minv H.
  apply expect_inv in E0. destruct E0 as [E0 ->].
  apply mret_inv in H. destruct H; subst. eauto 8.
Qed.
Lemma cmp_ctor_inv : forall x cargs ty st c st', cmp_ctor x cargs ty st = Ok (c, st') ->
  exists args ty0, cargs st = Ok (args, st') /\ ty = Some ty0 /\ c = CXtor CPrd (new_id x) args (compile_ty ty0).
Proof.
  intros x cargs ty st c st' H. unfold cmp_ctor in H. minv H. minv H.
  apply expect_inv in E0. destruct E0 as [E0 ->].
  apply mret_inv in H. destruct H; subst. eauto 8.
Qed.
Lemma wc_ctor_inv : forall x cargs ty cont st s st', wc_ctor x cargs ty cont st = Ok (s, st') ->
  exists args ty0, cargs st = Ok (args, st') /\ ty = Some ty0 /\
                   s = CCut (CXtor CPrd (new_id x) args (compile_ty ty0)) (compile_ty ty0) cont.
Proof.
  intros x cargs ty cont st s st' H. unfold wc_ctor in H. apply cut_at_inv in H. destruct H as [ty0 [p [-> [E ->]]]].
  apply cmp_ctor_inv in E. destruct E as [args [ty1 [E1 [E2 ->]]]]. injection E2 as <-. eauto.
Qed.
Lemma wc_case_inv : forall cur wscrut sty n ccls cont st s st',
  wc_case cur wscrut sty n ccls cont st = Ok (s, st') ->
  exists cont1 st0 cls st1 sty0,
    (if Nat.leb n 1 || cont_is_small cont then cont1 = cont /\ st0 = st else share cur cont st = Ok (cont1, st0)) /\
    ccls cont1 st0 = Ok (cls, st1) /\ sty = Some sty0 /\
    wscrut (CXCase CCns cls (compile_ty sty0)) st1 = Ok (s, st').
Proof.
  intros cur wscrut sty n ccls cont st s st' H. unfold wc_case in H. minv H. minv H. minv H.
  apply expect_inv in E1. destruct E1 as [E1 ->]. subst.
  exists x, st0, x0, st1, x1. repeat split; auto.
  destruct (Nat.leb n 1 || cont_is_small cont); [apply mret_inv in E; destruct E; subst; auto | exact E].
Qed.
Lemma compile_clause_inv : forall x ctx wbody cont st c st', compile_clause x ctx wbody cont st = Ok (c, st') ->
  exists body, wbody cont st = Ok (body, st') /\ c = CClause CCns (new_id x) (compile_ctx ctx) body.
Proof.
  intros x ctx wbody cont st c st' H. unfold compile_clause in H. minv H. apply mret_inv in H. destruct H; subst. eauto.
Qed.
Lemma wc_exit_inv : forall ca ty st s st', wc_exit ca ty st = Ok (s, st') ->
  exists a ty0, ca st = Ok (a, st') /\ ty = Some ty0 /\ s = CExit a (compile_ty ty0).
Proof.
  intros ca ty st s st' H. unfold wc_exit in H. minv H. minv H.
  apply expect_inv in E0. destruct E0 as [E0 ->].
  apply mret_inv in H. destruct H; subst. eauto 8.
Qed.
Lemma cmp_label_inv : forall l wterm ty st c st', cmp_label l wterm ty st = Ok (c, st') ->
  exists ty0 s, ty = Some ty0 /\ wterm (CXVar CCns (new_id l) (compile_ty ty0)) st = Ok (s, st') /\
                c = CMu CPrd (new_id l) s (compile_ty ty0).
Proof.
  intros l wterm ty st c st' H. unfold cmp_label in H. minv H.
  apply expect_inv in E. destruct E as [E ->]. minv H.
  apply mret_inv in H. destruct H; subst. eauto 8.
Qed.
Lemma wc_label_inv : forall l wterm ty cont st s st', wc_label l wterm ty cont st = Ok (s, st') ->
  exists ty0 s0, ty = Some ty0 /\ wterm (CXVar CCns (new_id l) (compile_ty ty0)) st = Ok (s0, st') /\
                 s = CCut (CMu CPrd (new_id l) s0 (compile_ty ty0)) (compile_ty ty0) cont.
Proof.
  intros l wterm ty cont st s st' H. unfold wc_label in H. apply cut_at_inv in H. destruct H as [ty0 [p [-> [E ->]]]].
  apply cmp_label_inv in E. destruct E as [ty1 [s0 [E1 [E2 ->]]]]. injection E1 as <-. eauto.
Qed.
Lemma wc_goto_inv : forall l wterm ty tty st s st', wc_goto false l wterm ty tty st = Ok (s, st') ->
  exists ty0, tty = Some ty0 /\ wterm (CXVar CCns (new_id l) (compile_ty ty0)) st = Ok (s, st').
Proof.
  intros l wterm ty tty st s st' H. unfold wc_goto in H. minv H.
  apply expect_inv in E. destruct E as [E ->]. eauto.
Qed.
Lemma compile_arg_inv : forall t cmp_t st a st', compile_arg t cmp_t st = Ok (a, st') ->
  (exists v ty ty0, t = FVar v ty (Some FCns) /\ ty = Some ty0 /\
                    a = CConsumer (CXVar CCns (new_id v) (compile_ty ty0)) /\ st' = st) \/
  (match t with FVar _ _ (Some FCns) => False | _ => True end /\
   exists ty0 c, fterm_type t = Some ty0 /\ cmp_t (compile_ty ty0) st = Ok (c, st') /\ a = CProducer c).
Proof.
  intros t cmp_t st a st' H.
  assert (Hgen : (dom ty <- mlift (expect_ty (fterm_type t)); dom p <- cmp_t (compile_ty ty); mret (CProducer p)) st
                 = Ok (a, st') ->
                 exists ty0 c, fterm_type t = Some ty0 /\ cmp_t (compile_ty ty0) st = Ok (c, st') /\ a = CProducer c).
  { intros G. minv G. apply expect_inv in E. destruct E as [E ->]. minv G.
    apply mret_inv in G. destruct G; subst. eauto. }
  unfold compile_arg in H. destruct t; try (right; split; [exact I | apply Hgen; exact H]).
  destruct chi as [[|]|]; try (right; split; [exact I | apply Hgen; exact H]).
  left. minv H. apply expect_inv in E. destruct E as [E ->].
  apply mret_inv in H. destruct H; subst. eauto 8.
Qed.
Lemma subst_with_cons_inv : forall cmpf y r st l st', subst_with cmpf (y :: r) st = Ok (l, st') ->
  exists a st1 rest, compile_arg y (cmpf y) st = Ok (a, st1) /\ subst_with cmpf r st1 = Ok (rest, st') /\ l = a :: rest.
Proof.
  intros cmpf y r st l st' H. simpl in H. minv H. minv H. apply mret_inv in H. destruct H; subst. eauto 8.
Qed.
Lemma clauses_with_cons_inv : forall wcf cont pl x names ctx body r st l st',
  clauses_with wcf cont (FClause pl x names ctx body :: r) st = Ok (l, st') ->
  exists c st1 rest, compile_clause x ctx (wcf body) cont st = Ok (c, st1) /\
                     clauses_with wcf cont r st1 = Ok (rest, st') /\ l = c :: rest.
Proof.
  intros wcf cont pl x names ctx body r st l st' H. simpl in H. minv H. minv H. apply mret_inv in H. destruct H; subst.
  eauto 8.
Qed.

Lemma gl_cons : forall b0 G x, gl (b0 :: G) x = if cident_eqb (cbvar b0) x then Some b0 else gl G x.
Proof. reflexivity. Qed.
Lemma gl_name : forall G x b, gl G x = Some b -> cbvar b = x.
Proof. intros G x b H. unfold gl in H. apply find_some in H. destruct H as [_ H]. apply cident_eqb_eq in H. exact H. Qed.
Lemma gl_In : forall G x b, gl G x = Some b -> In b G.
Proof. intros G x b H. unfold gl in H. apply find_some in H. tauto. Qed.
Lemma gl_app : forall A G x b, gl (A ++ G) x = Some b -> In b A \/ gl G x = Some b.
Proof.
  induction A as [|a A IH]; intros G x b H; simpl in *; [right; exact H|].
  destruct (cident_eqb (cbvar a) x).
  - injection H as H. left. left. exact H.
  - destruct (IH _ _ _ H) as [H1|H1]; [left; right; exact H1 | right; exact H1].
Qed.

(* the names of a compiled context are those of the source context *)
Lemma in_compile_ctx : forall ctx bb, In bb (compile_ctx ctx) -> exists y, cbvar bb = new_id y /\ In y (fvars ctx).
Proof.
  intros ctx bb H. unfold compile_ctx in H. apply in_map_iff in H. destruct H as [b0 [<- Hb0]].
  exists (fbvar b0). split; [reflexivity | unfold fvars; apply in_map; exact Hb0].
Qed.
Lemma in_cvars_compile_ctx : forall ctx x, In x (cvars (compile_ctx ctx)) -> exists y, x = new_id y /\ In y (fvars ctx).
Proof.
  intros ctx x H. unfold cvars in H. apply in_map_iff in H. destruct H as [bb [<- Hbb]]. apply in_compile_ctx. exact Hbb.
Qed.

(* what the fragment and the scope check ask of the clauses of a case / new *)
Definition clauses_frag (p : fcprog) (cls : list fclause) : bool :=
  forallb (fun c => match c with FClause _ _ names ctx body =>
                      list_eqb String.eqb names (fvars ctx) && ctx_data p ctx && frag p body end) cls.
Definition clauses_ws (G : list cbinding) (cls : list fclause) : bool :=
  forallb (fun c => match c with FClause _ _ _ ctx body => ws (compile_ctx ctx ++ G) body end) cls.

Lemma var_ok_inv : forall G v ty chi, var_ok G v ty chi = true ->
  exists ty0, ty = Some ty0 /\ gl G (new_id v) = Some (mkcb (new_id v) chi (compile_ty ty0)).
Proof.
  intros G v ty chi H. unfold var_ok in H. destruct ty as [ty0|]; [|discriminate].
  destruct (gl G (new_id v)) as [b|] eqn:E; [|discriminate]. apply cbinding_eqb_eq in H. subst b. eauto.
Qed.

Lemma disj_spec : forall a b, disj a b = true -> forall x, In x a -> In x b -> False.
Proof.
  intros a b H x Ha Hb. unfold disj, inter_nonempty in H. apply negb_true_iff in H.
  assert (existsb (fun x0 => mem x0 b) a = true); [|congruence].
  apply existsb_exists. exists x. split; [exact Ha | apply mem_In; exact Hb].
Qed.

Section Frag.
  Variable p : fcprog.
  Definition codata_of : list ctydecl := map compile_codata (fcpcodata p).
  Lemma ty_is_codata_compile : forall ty, ty_is_codata codata_of (compile_ty ty) = f_is_codata p ty.
  Proof.
    intros ty. destruct ty as [|n targs]; [reflexivity|].
    unfold compile_ty, ty_is_codata, f_is_codata, codata_of.
    induction (fcpcodata p) as [|d r IH]; [reflexivity|].
    cbn [map existsb]. rewrite IH. f_equal. unfold compile_codata. cbn [ctname]. apply cid_eqb_new_id.
  Qed.
End Frag.
