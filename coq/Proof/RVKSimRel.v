(* C08, forward simulation for HEAP statements: the state relation between a configuration of the heap-instrumented
   linear machine (Sem/AxHeap.v) and a state of Sem/RVSem.v, objects of any number of fields.  The representation of
   values in heap words is the SHARED one of Proof/HRep.v (objects chained over several blocks: `wblocks` / `waddrs`), with JL := RV.jump_length (4 bytes per table entry) and INT := nothing recorded
   (as on x86-64: `LI` carries any value, the RISC-V arithmetic of Sem/RVSem.v wraps).
     hvrep   position i of the environment: an `ext i64` variable has its value in the SECOND register; every other
             variable has the block pointer of the machine's entry in the FIRST and the data word in the SECOND register;
     hrel    X2 / X3 = reuse list / deferred list of the abstract state, `abs_heap` = the abstract state up to zero
             padding (`heq`; RVHDefs.heq is convertible with the shared X86HeapDefs.heq). *)
From Coq Require Import List ZArith NArith String Bool Lia FMapPositive.
From SCC Require Import Base.Sexp Lang.AxSyn Sem.AxSem Sem.AxHeap Model.ParMoves Model.Backend Model.RV Sem.RVSem Sem.RVWf
     Generated.Constants Proof.RVSel Proof.SubstGraph Proof.SubstBackends Proof.RVSubst Proof.RVSimAddr Proof.RVSimRel
     Proof.RVHeapAbs Proof.RVHDefs Proof.RVHMem Proof.HRep.
From SCC Require Model.Heap Proof.HeapMore Proof.HeapTrace Proof.HeapRep Proof.HeapRepAlloc Proof.HeapRepLoad
     Proof.X86Mem Proof.X86HeapDefs Proof.X86HFrame Proof.RVHSimRel Proof.X86HSimRel.
Import ListNotations.
Open Scope Z_scope.
Open Scope list_scope.

Notation P03 := RVHSimRel.P03.
Notation P03_P3 := RVHSimRel.P03_P3.
Notation P03_hrun := RVHSimRel.P03_hrun.
Notation P03_init := RVHSimRel.P03_init.

(* nothing is recorded about integers *)
Definition any_int (z : Z) : Prop := True.

Lemma obj_blocks_abs s : forall k p, Heap.obj_blocks k (abs_mem s) p = wblocks k (hword s) p.
Proof. induction k as [|k IH]; intros p; cbn [Heap.obj_blocks X86HeapDefs.wblocks]; [reflexivity|]. f_equal. apply IH. Qed.
Lemma heq_slots_agree F s hs : heq (abs_heap F s) hs -> slots_agree (Heap.m hs) (hword s).
Proof. intros H b Hb. exact (proj1 (heq_abs_ps F s hs b H Hb)). Qed.
(* the pointers the instrumented machine gives to the variables loaded from a represented object *)
Lemma load_ptrs_words F s hs lk fs q :
  heq (abs_heap F s) hs -> P03 hs -> fs <> [] ->
  HeapRep.rep_flds lk (Heap.m hs) fs q ->
  Forall is_blk (wblocks (Heap.nlinks (List.length fs)) (hword s) q) ->
  load_ptrs hs (List.length fs) q =
    map (hword s) (skipn (List.length (waddrs (Heap.nlinks (List.length fs)) (hword s) q) - List.length fs)
                         (waddrs (Heap.nlinks (List.length fs)) (hword s) q)).
Proof.
  intros HQ K NE RF FB. inversion RF as [|fs0 q0 j pl _ Hlk HL HF RS]; subst; [congruence|].
  pose proof (HeapRep.reps_length _ _ _ _ RS) as Lpl.
  unfold load_ptrs. rewrite <- Hlk in *.
  rewrite (X86HFrame.obj_fields_words hs (hword s) (heq_slots_agree F s hs HQ) K (lk q) q FB).
  - unfold Heap.lastn. rewrite map_length, <- skipn_map. reflexivity.
  - rewrite HF, app_length, repeat_length, Lpl. pose proof (X86HFrame.nlinks_bound (List.length fs)). rewrite <- Hlk in *.
    assert (0 < List.length fs)%nat by (destruct fs; [congruence|cbn; lia]). lia.
Qed.

Notation hlookup_nth := X86HSimRel.hlookup_nth.

Section HRel.
Variable types : list tydecl.
(* what the data word of a closure points to: (address, type name, clauses, captured context) *)
Variable CLO : Z -> ident -> list clause -> ctx -> Prop.
Notation xrep := (HRep.xrep types CLO jump_length any_int).
Notation xflds := (HRep.xflds types CLO jump_length any_int).
Notation xreps := (HRep.xreps types CLO jump_length any_int).

Inductive hvrep (s : rstate) (i : nat) : binding -> value -> Z -> Prop :=
| hv_int b z q t :
    bchi b = Ext -> bty b = I64 -> rtpos Snd i = Ok t -> rget s t = Some z -> hvrep s i b (VInt z) q
| hv_ptr b v q a t1 t2 :
    bchi b <> Ext -> chi_of v = bchi b -> ty_of v = bty b ->
    rtpos Fst i = Ok t1 -> rtpos Snd i = Ok t2 -> rget s t1 = Some q -> rget s t2 = Some a ->
    xrep (hword s) v q a -> hvrep s i b v q.

Record hrel (c : ctx) (he : henv) (hs : Heap.st) (s : rstate) : Prop := mk_hrel {
  hr_heapreg : rget s HEAP = Some (Heap.heap hs);
  hr_freereg : rget s FREE = Some (Heap.free hs);
  hr_heq : heq (abs_heap (Heap.frontier hs) s) hs;
  hr_ids : env_ids (erase_env he) = ids c;
  hr_nodup : NoDup (ids c);
  hr_vals : forall i x v q, nth_error he i = Some (x, v, q) -> exists b, nth_error c i = Some b /\ hvrep s i b v q
}.

Lemma hrel_length c he hs s : hrel c he hs s -> List.length he = List.length c.
Proof.
  intros R. pose proof (hr_ids _ _ _ _ R) as H. apply (f_equal (@List.length N)) in H.
  unfold env_ids, ids, erase_env in H. now rewrite !map_length in H.
Qed.
(* every position has registers: at most 14 variables *)
Lemma hrel_small c he hs s : hrel c he hs s -> (List.length he <= 14)%nat.
Proof.
  intros R. destruct (Nat.le_gt_cases (List.length he) 14) as [L|L]; [exact L|exfalso].
  destruct (nth_error he 14) as [[[x v] q]|] eqn:E; [|apply nth_error_None in E; lia].
  destruct (hr_vals _ _ _ _ R 14%nat x v q E) as (b & _ & V).
  assert (T : exists t, rtpos Snd 14 = Ok t) by (destruct V; eauto).
  destruct T as (t & T). apply rtpos_val in T. lia.
Qed.

Lemma hvrep_keep s s' i b v q :
  (forall a, ~ is_blk a -> hword s' a = hword s a) ->
  (forall n t, allowed n b -> rtpos n i = Ok t -> rget s' t = rget s t) -> hvrep s i b v q -> hvrep s' i b v q.
Proof.
  intros HE K V. destruct V as [b z q t A B T L|b v q a t1 t2 A K1 K2 T1 T2 L1 L2 X].
  - eapply hv_int; eauto. rewrite (K Snd _ (or_introl eq_refl) T). exact L.
  - assert (AL : forall n, allowed n b) by (intros n; right; exact A).
    apply (hv_ptr s' i b v q a t1 t2); auto.
    + rewrite (K Fst t1 (AL Fst) T1). exact L1.
    + rewrite (K Snd t2 (AL Snd) T2). exact L2.
    + apply (HRep.xrep_ext types CLO jump_length any_int (hword s) (hword s')); [exact HE|exact X].
Qed.
Lemma hvrep_kind s i b b' v q : bchi b' = bchi b -> bty b' = bty b -> hvrep s i b v q -> hvrep s i b' v q.
Proof.
  intros K T V. destruct V as [b z q t A B T0 L|b v q a t1 t2 A K1 K2 T1 T2 L1 L2 X].
  - eapply hv_int; eauto; congruence.
  - eapply hv_ptr; eauto; congruence.
Qed.

Lemma heq_same_words F s s' hs :
  (forall a, hword s' a = hword s a) -> rget s' HEAP = rget s HEAP -> rget s' FREE = rget s FREE ->
  heq (abs_heap F s) hs -> heq (abs_heap F s') hs.
Proof.
  intros HE RH RF. apply heq_eqB. unfold abs_heap, reg_or0. rewrite RH, RF.
  split; [reflexivity|]. split; [reflexivity|]. split; [reflexivity|].
  intros x _. unfold abs_mem. cbn [Heap.m]. now rewrite !HE.
Qed.

(* a state change that keeps the heap words, the allocator registers and every live register keeps the relation *)
Lemma hrel_keep c he hs s s' :
  hrel c he hs s -> (forall a, hword s' a = hword s a) ->
  rget s' HEAP = rget s HEAP -> rget s' FREE = rget s FREE ->
  (forall i b n t, nth_error c i = Some b -> allowed n b -> rtpos n i = Ok t -> rget s' t = rget s t) ->
  hrel c he hs s'.
Proof.
  intros R HE RH RF K. destruct R as [Hr Fr HQ Ids ND Vals]. split; auto.
  - now rewrite RH.
  - now rewrite RF.
  - eapply heq_same_words; eauto.
  - intros i x v q Hn. destruct (Vals i x v q Hn) as (b & Hb & V). exists b. split; [exact Hb|].
    eapply hvrep_keep; [intros a _; apply HE| |exact V]. intros n t AL T. apply (K i b n t); auto.
Qed.

(* reading an integer operand *)
Lemma henv_ctx_nth c (he : henv) i y v q :
  env_ids (erase_env he) = ids c -> nth_error he i = Some (y, v, q) -> exists b, nth_error c i = Some b /\ idn (bvar b) = idn y.
Proof.
  intros E H. apply (SimFrag.env_ctx_nth c (erase_env he) i y v E).
  unfold erase_env. now rewrite (map_nth_error _ _ _ H).
Qed.
Lemma hrel_lookup c he hs s a x :
  hrel c he hs s -> lookup_int (erase_env he) a = Some x ->
  exists i b t, nth_error c i = Some b /\ idn (bvar b) = idn a /\ rtpos Snd i = Ok t /\ rget s t = Some x.
Proof.
  intros R H. unfold lookup_int, lookup_id in H.
  destruct (AxSem.lookup (erase_env he) (idn a)) as [[z| |]|] eqn:L; try discriminate.
  inversion H; subst z. destruct (hlookup_nth he (idn a) (VInt x) L) as (i & y & q & Hn & Hy).
  destruct (henv_ctx_nth c he i y _ q (hr_ids _ _ _ _ R) Hn) as (b & Hb & Eb).
  destruct (hr_vals _ _ _ _ R i y _ q Hn) as (b' & Hb' & V). assert (b' = b) by congruence. subst b'.
  inversion V; subst.
  - exists i, b, t. repeat split; auto. congruence.
  - match goal with K : chi_of (VInt x) = bchi b |- _ => cbn in K end. congruence.
Qed.
Lemma hrel_operand c he hs s a x ta :
  hrel c he hs s -> lookup_int (erase_env he) a = Some x -> rvt c (idn a) = Ok ta -> rget s ta = Some x.
Proof.
  intros R LA TA. destruct (hrel_lookup c he hs s a x R LA) as (i & bi & ti & Hi & Ei & Ti & Vi).
  rewrite <- Ei, (rvt_of_nth0 c i bi (hr_nodup _ _ _ _ R) Hi), Ti in TA. inversion TA; subst ti. exact Vi.
Qed.
Lemma hrel_operand_app c c' he hs s a x ta :
  hrel c he hs s -> NoDup (ids (c ++ c')) -> lookup_int (erase_env he) a = Some x -> rvt (c ++ c') (idn a) = Ok ta ->
  rget s ta = Some x.
Proof.
  intros R ND LA TA. destruct (hrel_lookup c he hs s a x R LA) as (i & bi & ti & Hi & Ei & Ti & Vi).
  rewrite <- Ei, (rvt_of_nth c c' i bi ND Hi), Ti in TA. inversion TA; subst ti. exact Vi.
Qed.

(* extending the environment by a new last variable whose registers have been written (heap words unchanged) *)
Lemma hrel_push c he hs s s' b v q :
  hrel c he hs s -> NoDup (ids (c ++ [b])) ->
  (forall a, hword s' a = hword s a) ->
  (forall r, (forall n, rtpos n (List.length c) = Ok r -> False) -> r <> TEMP -> rget s' r = rget s r) ->
  hvrep s' (List.length c) b v q ->
  hrel (c ++ [b]) (he ++ [(bvar b, v, q)]) hs s'.
Proof.
  intros R ND HE K V. pose proof (hrel_length _ _ _ _ R) as LEN. destruct R as [Hr Fr HQ Ids ND0 Vals].
  assert (KR : forall r, (r = HEAP \/ r = FREE) -> rget s' r = rget s r).
  { intros r Hr0. apply K.
    - intros n H. apply rtpos_regs in H. destruct Hr0; subst; tauto.
    - destruct Hr0; subst; discriminate. }
  split.
  - rewrite KR by auto. exact Hr.
  - rewrite KR by auto. exact Fr.
  - eapply heq_same_words; eauto.
  - unfold env_ids, ids, erase_env in *. rewrite !map_app. f_equal. exact Ids.
  - exact ND.
  - intros i x w p Hn. destruct (Nat.lt_ge_cases i (List.length he)) as [L|L].
    + rewrite nth_error_app1 in Hn by exact L. destruct (Vals i x w p Hn) as (b0 & Hb & V0).
      exists b0. split; [rewrite nth_error_app1 by lia; exact Hb|].
      eapply hvrep_keep; [intros a _; apply HE| |exact V0]. intros n t0 _ T0. apply K.
      * intros n' T'. destruct (tpos_inj rv_backend rv_backend_ok _ _ _ _ _ T0 T') as [_ E]. lia.
      * apply rtpos_regs in T0. tauto.
    + rewrite nth_error_app2 in Hn by exact L. destruct (i - List.length he)%nat as [|k] eqn:Kk; cbn in Hn; [|destruct k; discriminate].
      inversion Hn; subst. exists b. split.
      * rewrite nth_error_app2 by lia. replace (i - List.length c)%nat with O by lia. reflexivity.
      * replace i with (List.length c) by lia. exact V.
Qed.

(* dropping the last variable *)
Lemma hrel_prefix c0 b he0 en hs s : hrel (c0 ++ [b]) (he0 ++ [en]) hs s -> hrel c0 he0 hs s.
Proof.
  intros R. pose proof (hrel_length _ _ _ _ R) as LEN. rewrite !app_length in LEN. cbn [List.length] in LEN.
  destruct R as [Hr Fr HQ Ids ND Vals]. split; auto.
  - unfold env_ids, ids, erase_env in *. rewrite !map_app in Ids. cbn [map] in Ids. apply app_inj_tail in Ids. tauto.
  - unfold ids in *. rewrite map_app in ND. clear -ND. induction (map (fun b => idn (bvar b)) c0) as [|x l IH]; cbn in *; [constructor|].
    inversion ND; subst. constructor; auto. intros I. apply H1. apply in_app_iff. now left.
  - intros i x v q Hi. assert (Li : (i < List.length he0)%nat) by (apply nth_error_Some; congruence).
    destruct (Vals i x v q) as (b' & Hb' & V); [rewrite nth_error_app1 by exact Li; exact Hi|].
    exists b'. split; [|exact V]. rewrite nth_error_app1 in Hb' by lia. exact Hb'.
Qed.
(* the last variable: its entry, name and representation *)
Lemma hrel_last c0 b he hs s : hrel (c0 ++ [b]) he hs s ->
  exists he0 x v q, he = he0 ++ [(x, v, q)] /\ List.length he0 = List.length c0 /\ idn x = idn (bvar b) /\
                    hvrep s (List.length he0) b v q.
Proof.
  intros R. pose proof (hrel_length _ _ _ _ R) as LEN. rewrite app_length in LEN. cbn [List.length] in LEN.
  destruct (exists_last (l := he)) as (he0 & [[x v] q] & ->); [intros ->; cbn in LEN; lia|].
  rewrite app_length in LEN. cbn [List.length] in LEN. assert (L0 : List.length he0 = List.length c0) by lia.
  exists he0, x, v, q. split; [reflexivity|]. split; [exact L0|]. split.
  - pose proof (hr_ids _ _ _ _ R) as Ids. unfold env_ids, ids, erase_env in Ids. rewrite !map_app in Ids. cbn [map fst] in Ids.
    now apply app_inj_tail in Ids as [_ E].
  - destruct (hr_vals _ _ _ _ R (List.length he0) x v q) as (b0 & Hb0 & V); [apply nth_error_mid|].
    rewrite L0, nth_error_mid in Hb0. now inversion Hb0; subst b0.
Qed.

End HRel.

Arguments hr_heapreg {types CLO c he hs s}.
Arguments hr_freereg {types CLO c he hs s}.
Arguments hr_heq {types CLO c he hs s}.
Arguments hr_ids {types CLO c he hs s}.
Arguments hr_nodup {types CLO c he hs s}.
Arguments hr_vals {types CLO c he hs s}.
Arguments hrel_length {types CLO c he hs s}.

