(* Proof/WtExamples.v (property C12): whole-pipeline examples computed inside Coq. *)
From Coq Require Import List ZArith NArith String Bool.
From SCC Require Import Base.Sexp Lang.CoreSyn Sem.FsCheck Sem.CoreCheck Model.FocusCheck Model.Backend Model.Focus Model.WtDefs.
(* ---------- whole-pipeline examples ----------
   For three real outputs of fun2core (Proof/FocusExamples.v: two repository programs, one generated
   program) the MODELS of the passes compose and every checker accepts every stage; the three code
   generators return Ok. *)
From SCC Require Import Lang.AxSyn Model.Shrink Model.Linearize Model.LinCheck Model.Capacity Model.X86 Model.A64 Model.RV Proof.FocusExamples.
From SCC Require Sem.AxCheck.

Definition pipeline_ok (s : string) : bool :=
  match parse_prog s with
  | None => false
  | Some c =>
      wt_core c && pre_check c &&
      match focus_prog c with
      | Backend.Err _ => false
      | Backend.Ok f =>
          wt_fs f && unique_binders f && ids_bounded f && wt_core (embed_prog f) &&
          match shrink_prog f with
          | SErr _ => false
          | SOk a =>
              AxCheck.wt_ax a && pre_linear_prog a && binders_ok a && prog_ok a &&
              let l := linearize a in
              lin_check_prog l && within_capacity_x86 l && within_capacity_a64 l &&
              match x86_compile l 0, a64_compile l 0 with
              | Backend.Ok _, Backend.Ok _ => true
              | _, _ => false
              end
          end
      end
  end.
Lemma pipeline_examples_ok : pipeline_ok ex_lists = true /\ pipeline_ok ex_case_of = true /\ pipeline_ok ex_gen3 = true.
Proof. do 2 (split; [vm_compute; reflexivity|]). vm_compute; reflexivity. Qed.

