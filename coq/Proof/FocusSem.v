(* C03, semantic part, proved fragment: programs whose entry definition is straight-line integer
   code - ifc / print / exit whose arguments are operator trees over literals and the (integer)
   parameters, no mu, no data or codata, no calls - and whose parameters already carry non-zero ids
   (in particular: a parameterless main).  For these, the focused program has exactly the
   observations of the original on the Core abstract machine (Sem/CoreSem.v), undefined
   arithmetic included, for every argument tuple.

   Method: a big-step evaluator [aeval]/[aexec] for the fragment; the source machine run equals it
   ([src_arg], [src_stmt]); `bind t k` runs to the statement produced by k in an environment
   extended by fresh bindings, the binding handed to k holding the value of t ([tgt_bind]); hence
   the focused statement equals the big-step result too ([tgt_stmt]).
   The fragment ([aterm], [astmt], [avars], [avars_stmt]) and the hypothesis [entry_ok] of the theorem are defined here. *)
From Coq Require Import List ZArith NArith String Bool Lia.
From SCC Require Import Base.Sexp Lang.CoreSyn Sem.AxSem Sem.CoreSem Model.Backend Model.Uniquify Model.Focus
     Model.FocusCheck Proof.CoreInd Proof.SubstProof Proof.CheckLemmas Proof.UniquifyProof Proof.FocusKont Proof.FocusTheorems.
Import ListNotations.
Open Scope list_scope.

Fixpoint aterm (t : cterm) : bool :=
  match t with
  | CXVar _ _ _ => true
  | CLit _ => true
  | COp a _ b => aterm a && aterm b
  | _ => false
  end.
Fixpoint astmt (s : cstmt) : bool :=
  match s with
  | CIfC _ a b t e =>
      aterm a && match b with Some b' => aterm b' | None => true end && astmt t && astmt e
  | CPrint _ a n => aterm a && astmt n
  | CExit a _ => aterm a
  | _ => false
  end.
Fixpoint avars (t : cterm) : list cident :=
  match t with
  | CXVar _ v _ => [v]
  | COp a _ b => avars a ++ avars b
  | _ => []
  end.
Fixpoint avars_stmt (s : cstmt) : list cident :=
  match s with
  | CIfC _ a b t e => avars a ++ match b with Some b' => avars b' | None => [] end ++ avars_stmt t ++ avars_stmt e
  | CPrint _ a n => avars a ++ avars_stmt n
  | CExit a _ => avars a
  | _ => []
  end.

Definition int_env (e : cenv) (vs : list cident) : Prop :=
  forall v, In v vs -> exists z, clookup e v = Some (BP (PInt z)).
Definition aval (e : cenv) (v : cident) : Z :=
  match clookup e v with Some (BP (PInt z)) => z | _ => 0%Z end.

Inductive ares := AV (z : Z) | AU (w : string).
Fixpoint aeval (e : cenv) (t : cterm) : ares :=
  match t with
  | CXVar _ v _ => AV (aval e v)
  | CLit n => AV n
  | COp a o b =>
      match aeval e a with
      | AU w => AU w
      | AV x =>
          match aeval e b with
          | AU w => AU w
          | AV y => match eval_op (ax_binop o) x y with OpVal z => AV z | OpUndef w => AU w end
          end
      end
  | _ => AV 0%Z
  end.
Fixpoint aexec (e : cenv) (s : cstmt) : prints * outcome :=
  match s with
  | CExit a _ => match aeval e a with AV z => ([], OExit z) | AU w => ([], OUndef w) end
  | CPrint nl a n =>
      match aeval e a with
      | AV z => let r := aexec e n in ((nl, z) :: fst r, snd r)
      | AU w => ([], OUndef w)
      end
  | CIfC so a b t el =>
      match aeval e a with
      | AU w => ([], OUndef w)
      | AV x =>
          match b with
          | None => if eval_cmp (ax_ifsort so) x 0 then aexec e t else aexec e el
          | Some b' =>
              match aeval e b' with
              | AU w => ([], OUndef w)
              | AV y => if eval_cmp (ax_ifsort so) x y then aexec e t else aexec e el
              end
          end
      end
  | _ => ([], OStuck "outside the fragment")
  end.

(* the result of a run that still has [out] (reversed) pending *)
Definition done (out : prints) (r : prints * outcome) : obs := (rev_append out [] ++ fst r, snd r).

Lemma andb4 : forall a b c d : bool, a && b && c && d = true -> a = true /\ b = true /\ c = true /\ d = true.
Proof. intros [|] [|] [|] [|] H; try discriminate; auto. Qed.

Lemma crun_next : forall f p c c' out, cstep p c = SNext c' -> crun (S f) p c out = crun f p c' out.
Proof. intros; simpl; rewrite H; reflexivity. Qed.
Lemma crun_halt : forall f p c o out, cstep p c = SHalt o -> crun (S f) p c out = finish out o.
Proof. intros; simpl; rewrite H; reflexivity. Qed.
Lemma crun_print : forall f p c c' nl z out, cstep p c = SPrint nl z c' -> crun (S f) p c out = crun f p c' ((nl, z) :: out).
Proof. intros; simpl; rewrite H; reflexivity. Qed.

Lemma int_env_app_l : forall e a b, int_env e (a ++ b) -> int_env e a.
Proof. intros e a b H v Hv. apply H. apply in_or_app; auto. Qed.
Lemma int_env_app_r : forall e a b, int_env e (a ++ b) -> int_env e b.
Proof. intros e a b H v Hv. apply H. apply in_or_app; auto. Qed.
Lemma int_env_aval : forall e v vs, int_env e vs -> In v vs -> clookup e v = Some (BP (PInt (aval e v))).
Proof. intros e v vs H Hv. destruct (H v Hv) as (z & E). unfold aval. rewrite E. reflexivity. Qed.

(* source: evaluating an argument of the fragment *)
Lemma src_arg : forall t, aterm t = true -> forall e, int_env e (avars t) ->
  exists d, forall p m fuel out,
    crun (d + fuel) p (Arg (CProducer t) e m) out =
    match aeval e t with
    | AV z => crun fuel p (App m (BP (PInt z))) out
    | AU w => finish out (OUndef w)
    end.
Proof.
  induction t; simpl; intros A e IE; try discriminate.
  - exists 1%nat. intros. apply crun_next. simpl.
    rewrite (int_env_aval e v [v]); auto. left; auto.
  - exists 1%nat. intros. apply crun_next. reflexivity.
  - apply andb_true_iff in A. destruct A as [A1 A2].
    destruct (IHt1 A1 e (int_env_app_l _ _ _ IE)) as (d1 & H1).
    destruct (IHt2 A2 e (int_env_app_r _ _ _ IE)) as (d2 & H2).
    exists (S (d1 + S (d2 + 1)))%nat. intros p m fuel out.
    change (S (d1 + S (d2 + 1)) + fuel)%nat with (S ((d1 + S (d2 + 1)) + fuel))%nat.
    rewrite (crun_next _ p _ (Arg (CProducer t1) e (MOpL o t2 e m))) by reflexivity.
    rewrite <- Nat.add_assoc. rewrite H1.
    destruct (aeval e t1) as [x|w]; auto.
    change (S (d2 + 1) + fuel)%nat with (S ((d2 + 1) + fuel))%nat.
    rewrite (crun_next _ p _ (Arg (CProducer t2) e (MOpR o x m))) by reflexivity.
    rewrite <- Nat.add_assoc. rewrite H2.
    destruct (aeval e t2) as [y|w]; auto.
    simpl. destruct (eval_op (ax_binop o) x y); reflexivity.
Qed.

Lemma done_cons : forall out nl z r, done ((nl, z) :: out) r = done out ((nl, z) :: fst r, snd r).
Proof.
  intros. unfold done; simpl. rewrite !rev_append_rev. simpl. rewrite !app_nil_r, <- app_assoc. reflexivity.
Qed.
Lemma finish_done : forall out o, finish out o = done out ([], o).
Proof. intros. unfold finish, done; simpl. rewrite app_nil_r. reflexivity. Qed.

Lemma src_stmt : forall s, astmt s = true -> forall e, int_env e (avars_stmt s) ->
  exists d, forall p fuel out, crun (d + fuel) p (Run s e) out = done out (aexec e s).
Proof.
  induction s as [pp ty kk|so a b t IHt el IHel|nl a n IHn|f args ty|a ty]; simpl; intros A e IE; try discriminate.
  - (* IfC *)
    destruct (andb4 _ _ _ _ A) as (A1 & A2 & A3 & A4).
    destruct (src_arg a A1 e (int_env_app_l _ _ _ IE)) as (d1 & H1).
    pose proof (int_env_app_r _ _ _ IE) as IE2.
    pose proof (int_env_app_r _ _ _ IE2) as IE3.
    destruct (IHt A3 e (int_env_app_l _ _ _ IE3)) as (dt & Ht).
    destruct (IHel A4 e (int_env_app_r _ _ _ IE3)) as (de & He).
    destruct b as [b0|].
    + destruct (src_arg b0 A2 e (int_env_app_l _ _ _ IE2)) as (d2 & H2).
      exists (S (d1 + S (d2 + S (dt + de))))%nat. intros p fuel out.
      change (S (d1 + S (d2 + S (dt + de))) + fuel)%nat with (S ((d1 + S (d2 + S (dt + de))) + fuel))%nat.
      rewrite (crun_next _ p _ (Arg (CProducer a) e (MIf1 so (Some b0) t el e))) by reflexivity.
      rewrite <- Nat.add_assoc. rewrite H1.
      destruct (aeval e a) as [x|w]; [|apply finish_done].
      change (S (d2 + S (dt + de)) + fuel)%nat with (S ((d2 + S (dt + de)) + fuel))%nat.
      rewrite (crun_next _ p _ (Arg (CProducer b0) e (MIf2 so x t el e))) by reflexivity.
      rewrite <- Nat.add_assoc. rewrite H2.
      destruct (aeval e b0) as [y|w]; [|apply finish_done].
      change (S (dt + de) + fuel)%nat with (S ((dt + de) + fuel))%nat.
      rewrite (crun_next _ p _ (Run (if eval_cmp (ax_ifsort so) x y then t else el) e)) by reflexivity.
      destruct (eval_cmp (ax_ifsort so) x y).
      * rewrite <- Nat.add_assoc. apply Ht.
      * replace (dt + de + fuel)%nat with (de + (dt + fuel))%nat by lia. apply He.
    + exists (S (d1 + S (dt + de)))%nat. intros p fuel out.
      change (S (d1 + S (dt + de)) + fuel)%nat with (S ((d1 + S (dt + de)) + fuel))%nat.
      rewrite (crun_next _ p _ (Arg (CProducer a) e (MIf1 so None t el e))) by reflexivity.
      rewrite <- Nat.add_assoc. rewrite H1.
      destruct (aeval e a) as [x|w]; [|apply finish_done].
      change (S (dt + de) + fuel)%nat with (S ((dt + de) + fuel))%nat.
      rewrite (crun_next _ p _ (Run (if eval_cmp (ax_ifsort so) x 0 then t else el) e)) by reflexivity.
      destruct (eval_cmp (ax_ifsort so) x 0).
      * rewrite <- Nat.add_assoc. apply Ht.
      * replace (dt + de + fuel)%nat with (de + (dt + fuel))%nat by lia. apply He.
  - (* Print *)
    apply andb_true_iff in A. destruct A as [A1 A2].
    destruct (src_arg a A1 e (int_env_app_l _ _ _ IE)) as (d1 & H1).
    destruct (IHn A2 e (int_env_app_r _ _ _ IE)) as (dn & Hn).
    exists (S (d1 + S dn))%nat. intros p fuel out.
    change (S (d1 + S dn) + fuel)%nat with (S ((d1 + S dn) + fuel))%nat.
    rewrite (crun_next _ p _ (Arg (CProducer a) e (MPrint nl n e))) by reflexivity.
    rewrite <- Nat.add_assoc. rewrite H1.
    destruct (aeval e a) as [z|w]; [|apply finish_done].
    change (S dn + fuel)%nat with (S (dn + fuel))%nat.
    rewrite (crun_print _ p _ (Run n e) nl z) by reflexivity.
    rewrite Hn. apply done_cons.
  - (* Exit *)
    destruct (src_arg a A e IE) as (d1 & H1).
    exists (S (d1 + 1))%nat. intros p fuel out.
    change (S (d1 + 1) + fuel)%nat with (S ((d1 + 1) + fuel))%nat.
    rewrite (crun_next _ p _ (Arg (CProducer a) e MExit)) by reflexivity.
    rewrite <- Nat.add_assoc. rewrite H1.
    destruct (aeval e a) as [z|w]; [|apply finish_done].
    simpl. apply finish_done.
Qed.

(* target: bind on the fragment *)
Open Scope string_scope.
Open Scope list_scope.
Open Scope N_scope.

(* the binding handed to the continuation and the counter at that moment *)
Fixpoint abind (t : cterm) (m : N) : cbinding * N :=
  match t with
  | CXVar _ v ty => (mkcb v CPrd ty, m)
  | CLit _ => (mkcb ("x", m + 1) CPrd CI64, m + 1)
  | COp a _ b =>
      let '(_, ma) := abind a m in
      let '(_, mb) := abind b ma in
      (mkcb ("x", mb + 1) CPrd CI64, mb + 1)
  | _ => (mkcb ("x", 0) CPrd CI64, m)
  end.

Definition fresh_ext (lo hi : N) (ext : cenv) : Prop :=
  forall y v, In (y, v) ext -> lo < cid_id y <= hi.

Lemma clookup_skip : forall ext e v, (forall y w, In (y, w) ext -> y <> v) -> clookup (ext ++ e) v = clookup e v.
Proof.
  induction ext as [|[y w] ext IH]; simpl; intros e v H; auto.
  destruct (cident_eqb y v) eqn:E.
  - apply cident_eqb_eq in E. exfalso. eapply H; eauto.
  - apply IH. intros; eapply H; eauto.
Qed.
Lemma clookup_fresh : forall lo hi ext e v, fresh_ext lo hi ext -> cid_id v <= lo -> clookup (ext ++ e) v = clookup e v.
Proof.
  intros lo hi ext e v F L. apply clookup_skip. intros y w Hy E. subst. specialize (F _ _ Hy). lia.
Qed.

Lemma avars_le : forall T t, aterm t = true -> ids_le_term T t = true -> forall v, In v (avars t) -> cid_id v <= T.
Proof.
  induction t; simpl; intros A I w Hw; try discriminate; try tauto.
  - destruct Hw as [<-|[]]. apply N.leb_le; auto.
  - apply andb_true_iff in A. apply andb_true_iff in I. destruct A, I. apply in_app_or in Hw. destruct Hw; auto.
Qed.

Lemma aeval_agree : forall t e e', aterm t = true -> (forall v, In v (avars t) -> clookup e' v = clookup e v) -> aeval e' t = aeval e t.
Proof.
  induction t; simpl; intros e e' A H; try discriminate; auto.
  - unfold aval. rewrite H; auto.
  - apply andb_true_iff in A. destruct A as [A1 A2].
    rewrite (IHt1 e e'), (IHt2 e e'); auto; intros; apply H; apply in_or_app; auto.
Qed.
Lemma int_env_agree : forall e e' vs, int_env e vs -> (forall v, In v vs -> clookup e' v = clookup e v) -> int_env e' vs.
Proof. intros e e' vs H A v Hv. rewrite A; auto. Qed.

Lemma abind_mono : forall t m, m <= snd (abind t m).
Proof.
  induction t; simpl; intros m; try lia.
  specialize (IHt1 m). destruct (abind t1 m) as [b1 ma]. simpl in *.
  specialize (IHt2 ma). destruct (abind t2 ma) as [b2 mb]. simpl in *. lia.
Qed.
Lemma abind_id : forall T t m, aterm t = true -> ids_le_term T t = true -> T <= m ->
  cid_id (cbvar (fst (abind t m))) <= snd (abind t m).
Proof.
  destruct t; simpl; intros m A I L; try discriminate; simpl; try lia.
  - apply N.leb_le in I. lia.
  - destruct (abind t1 m) as [b1 ma]. destruct (abind t2 ma) as [b2 mb]. simpl. lia.
Qed.

Ltac mstep := erewrite crun_next; [| simpl; reflexivity].

Lemma tgt_bind : forall t, aterm t = true -> forall k m s1 m2,
  k (fst (abind t m)) (snd (abind t m)) = Ok (s1, m2) ->
  exists s', bind_term CPrd t k m = Ok (s', m2) /\
  forall T q e, ids_le_term T t = true -> T <= m -> int_env e (avars t) ->
    exists d ext, fresh_ext m (snd (abind t m)) ext /\
      (forall fuel out, crun (d + fuel) q (Run (fs2c_stmt s') e) out =
         match aeval e t with
         | AV z => crun fuel q (Run (fs2c_stmt s1) (ext ++ e)) out
         | AU w => finish out (OUndef w)
         end) /\
      (forall z, aeval e t = AV z -> clookup (ext ++ e) (cbvar (fst (abind t m))) = Some (BP (PInt z))).
Proof.
  induction t as [c0 v ty|n|a IHa o b IHb| | |]; simpl; intros A k m s1 m2 K; try discriminate.
  - (* XVar *)
    exists s1. split; auto. intros T q e I L IE. exists 0%nat, []. split; [intros ? ? []|]. split.
    + intros; reflexivity.
    + intros z E. inversion E; subst. simpl. eapply int_env_aval; eauto. left; auto.
  - (* Lit *)
    rewrite K; simpl. eexists; split; [reflexivity|]. intros T q e I L IE.
    exists 1%nat, [(("x", m + 1), BP (PInt n))]. split; [|split].
    + intros y w [E|[]]. inversion E; subst; simpl. lia.
    + intros fuel out. simpl fs2c_stmt. change (1 + fuel)%nat with (S fuel). mstep. reflexivity.
    + intros z E. inversion E; subst. cbn [clookup app fst abind cbvar]. rewrite cident_eqb_refl. reflexivity.
  - (* Op *)
    apply andb_true_iff in A. destruct A as [A1 A2].
    destruct (abind a m) as [b1 ma] eqn:Ea. destruct (abind b ma) as [b2 mb] eqn:Eb. simpl in K.
    pose (sB := FsCut (FsOp (cbvar b1) o (cbvar b2)) CI64 (FsMu CCns ("x", mb + 1) s1 CI64)).
    assert (KB : opR_k b1 o k b2 mb = Ok (sB, m2)).
    { unfold opR_k, fresh_var, fresh_identifier. rewrite K. reflexivity. }
    destruct (IHb A2 (opR_k b1 o k) ma sB m2) as (sb & EB & SimB).
    { rewrite Eb. simpl. exact KB. }
    destruct (IHa A1 (opL_k b o k) m sb m2) as (sa & EA & SimA).
    { rewrite Ea. simpl. exact EB. }
    exists sa. split; [exact EA|].
    intros T q e I L IE. apply andb_true_iff in I. destruct I as [I1 I2].
    pose proof (abind_mono a m) as Ma. rewrite Ea in Ma. simpl in Ma.
    pose proof (abind_mono b ma) as Mb. rewrite Eb in Mb. simpl in Mb.
    destruct (SimA T q e I1 L (int_env_app_l _ _ _ IE)) as (da & xa & Fa & Ra & La).
    rewrite Ea in Fa, La. simpl in Fa, La.
    assert (AGa : forall v, In v (avars b) -> clookup (xa ++ e) v = clookup e v).
    { intros v Hv. eapply clookup_fresh; eauto. pose proof (avars_le T b A2 I2 v Hv). lia. }
    assert (Lma : T <= ma) by lia.
    destruct (SimB T q (xa ++ e) I2 Lma (int_env_agree _ _ _ (int_env_app_r _ _ _ IE) AGa)) as (db & xb & Fb & Rb & Lb).
    rewrite Eb in Fb, Lb. simpl in Fb, Lb.
    rewrite (aeval_agree b e (xa ++ e) A2 AGa) in Rb, Lb.
    exists (da + (db + 6))%nat, ((("x", mb + 1), BP (PInt match aeval e (COp a o b) with AV z => z | AU _ => 0%Z end)) :: xb ++ xa).
    split; [|split].
    + intros y w [E|Hy].
      * inversion E; subst; simpl. lia.
      * apply in_app_or in Hy. destruct Hy as [Hy|Hy]; [specialize (Fb _ _ Hy) | specialize (Fa _ _ Hy)]; simpl; lia.
    + intros fuel out. rewrite <- Nat.add_assoc. rewrite Ra. simpl aeval.
      destruct (aeval e a) as [x|w]; auto.
      rewrite <- Nat.add_assoc. rewrite Rb.
      destruct (aeval e b) as [y|w]; auto.
      (* the administrative cut  < b1 o b2 | mutilde x. s1 > *)
      assert (L1 : clookup (xb ++ xa ++ e) (cbvar b1) = Some (BP (PInt x))).
      { rewrite clookup_skip; [apply La; auto|].
        intros y0 w Hy E. subst. specialize (Fb _ _ Hy).
        pose proof (abind_id T a m A1 I1 L) as Q. rewrite Ea in Q. simpl in Q. lia. }
      assert (L2 : clookup (xb ++ xa ++ e) (cbvar b2) = Some (BP (PInt y))) by (apply Lb; auto).
      (* six steps: the cut starts its first operand, b1 is looked up, its value starts the second operand, b2 is
         looked up, the operation is performed, mu~ x binds the result *)
      simpl fs2c_stmt. change (6 + fuel)%nat with (S (S (S (S (S (S fuel)))))).

      mstep. erewrite crun_next; [| simpl; unfold fs_var; rewrite L1; reflexivity].
      mstep. erewrite crun_next; [| simpl; unfold fs_var; rewrite L2; reflexivity].
      simpl crun at 1. destruct (eval_op (ax_binop o) x y) as [z|w]; [|reflexivity].
      try mstep. simpl. rewrite <- ?app_assoc. reflexivity.
    + intros z E. cbn [clookup app fst cbvar]. rewrite cident_eqb_refl. simpl aeval in *. rewrite E. reflexivity.
Qed.

Lemma avars_stmt_le : forall T s, astmt s = true -> ids_le_stmt T s = true -> forall v, In v (avars_stmt s) -> cid_id v <= T.
Proof.
  induction s as [pp ty kk|so a b t IHt el IHel|nl a n IHn|f args ty|a ty]; simpl; intros A I v Hv; try discriminate.
  - destruct (andb4 _ _ _ _ A) as (A1 & A2 & A3 & A4).
    destruct (andb4 _ _ _ _ I) as (I1 & I2 & I3 & I4).
    apply in_app_or in Hv. destruct Hv as [Hv|Hv]; [eapply avars_le; eauto|].
    apply in_app_or in Hv. destruct Hv as [Hv|Hv]; [destruct b; [eapply avars_le; eauto | destruct Hv]|].
    apply in_app_or in Hv. destruct Hv as [Hv|Hv]; auto.
  - apply andb_true_iff in A. destruct A as [A1 A2]. apply andb_true_iff in I. destruct I as [I1 I2].
    apply in_app_or in Hv. destruct Hv as [Hv|Hv]; [eapply avars_le; eauto | auto].
  - eapply avars_le; eauto.
Qed.

Lemma aexec_agree : forall s e e', astmt s = true ->
  (forall v, In v (avars_stmt s) -> clookup e' v = clookup e v) -> aexec e' s = aexec e s.
Proof.
  induction s as [pp ty kk|so a b t IHt el IHel|nl a n IHn|f args ty|a ty]; simpl; intros e e' A H; try discriminate.
  - destruct (andb4 _ _ _ _ A) as (A1 & A2 & A3 & A4).
    rewrite (aeval_agree a e e' A1) by (intros; apply H; apply in_or_app; auto).
    rewrite (IHt e e' A3) by (intros; apply H; apply in_or_app; right; apply in_or_app; right; apply in_or_app; auto).
    rewrite (IHel e e' A4) by (intros; apply H; apply in_or_app; right; apply in_or_app; right; apply in_or_app; auto).
    destruct b as [b0|]; auto.
    rewrite (aeval_agree b0 e e' A2) by (intros; apply H; apply in_or_app; right; apply in_or_app; auto). auto.
  - apply andb_true_iff in A. destruct A as [A1 A2].
    rewrite (aeval_agree a e e' A1) by (intros; apply H; apply in_or_app; auto).
    rewrite (IHn e e' A2) by (intros; apply H; apply in_or_app; auto). auto.
  - rewrite (aeval_agree a e e' A); auto.
Qed.

Ltac lk L := erewrite crun_next; [| simpl; unfold fs_var; rewrite L; reflexivity].

(* [focus_stmt] on a statement of the fragment: the focused statement runs to the big-step result *)
Definition TS (s : cstmt) : Prop := astmt s = true -> forall m T, ids_le_stmt T s = true -> T <= m ->
  exists s' m', focus_stmt s m = Ok (s', m') /\ m <= m' /\
  forall q e, int_env e (avars_stmt s) ->
    exists d, forall fuel out, crun (d + fuel) q (Run (fs2c_stmt s') e) out = done out (aexec e s).

(* both branches of an ifc, focused one after the other and run in an environment that agrees with e below T *)
Lemma tgt_branches : forall t el, TS t -> TS el -> astmt t = true -> astmt el = true ->
  forall T mb, ids_le_stmt T t = true -> ids_le_stmt T el = true -> T <= mb ->
  exists t' m1 e' m2, focus_stmt t mb = Ok (t', m1) /\ focus_stmt el m1 = Ok (e', m2) /\ mb <= m2 /\
  forall q e e1, int_env e (avars_stmt t ++ avars_stmt el) ->
    (forall v, cid_id v <= T -> clookup e1 v = clookup e v) ->
    exists d, forall (c : bool) fuel out,
      crun (d + fuel) q (Run (if c then fs2c_stmt t' else fs2c_stmt e') e1) out = done out (if c then aexec e t else aexec e el).
Proof.
  intros t el IHt IHel A3 A4 T mb I3 I4 L.
  destruct (IHt A3 mb T I3 L) as (t' & m1 & Et & Lt & SimT).
  destruct (IHel A4 m1 T I4 ltac:(lia)) as (e' & m2 & Ee & Le & SimE).
  exists t', m1, e', m2. split; [exact Et|]. split; [exact Ee|]. split; [lia|].
  intros q e e1 IE AG.
  assert (AGt : forall v, In v (avars_stmt t) -> clookup e1 v = clookup e v) by (intros v Hv; apply AG; exact (avars_stmt_le T t A3 I3 v Hv)).
  assert (AGe : forall v, In v (avars_stmt el) -> clookup e1 v = clookup e v) by (intros v Hv; apply AG; exact (avars_stmt_le T el A4 I4 v Hv)).
  destruct (SimT q e1 (int_env_agree _ _ _ (int_env_app_l _ _ _ IE) AGt)) as (dt & Rt).
  destruct (SimE q e1 (int_env_agree _ _ _ (int_env_app_r _ _ _ IE) AGe)) as (de & Re).
  rewrite (aexec_agree t e e1 A3 AGt) in Rt. rewrite (aexec_agree el e e1 A4 AGe) in Re.
  exists (dt + de)%nat. intros [|] fuel out.
  - rewrite <- Nat.add_assoc. apply Rt.
  - replace (dt + de + fuel)%nat with (de + (dt + fuel))%nat by lia. apply Re.
Qed.

Lemma tgt_ifc : forall so a b t el, TS t -> TS el -> TS (CIfC so a b t el).
Proof.
  intros so a b t el IHt IHel A m T I L. simpl in A, I |- *.
  destruct (andb4 _ _ _ _ A) as (A1 & A2 & A3 & A4).
  destruct (andb4 _ _ _ _ I) as (I1 & I2 & I3 & I4).
  destruct (abind a m) as [b1 ma] eqn:Ea.
  pose proof (abind_mono a m) as Ma. rewrite Ea in Ma. simpl in Ma.
  pose proof (abind_id T a m A1 I1 L) as Qa. rewrite Ea in Qa. simpl in Qa.
  destruct b as [b0|].
  + destruct (abind b0 ma) as [b2 mb] eqn:Eb.
    pose proof (abind_mono b0 ma) as Mb. rewrite Eb in Mb. simpl in Mb.
    destruct (tgt_branches t el IHt IHel A3 A4 T mb I3 I4 ltac:(lia)) as (t' & m1 & e' & m2 & Et & Ee & Lm & SimB2).
    assert (KB : if2_k so b1 t el b2 mb = Ok (FsIfC so (cbvar b1) (Some (cbvar b2)) t' e', m2)).
    { unfold if2_k. rewrite Et; simpl. rewrite Ee; simpl. reflexivity. }
    destruct (tgt_bind b0 A2 (if2_k so b1 t el) ma (FsIfC so (cbvar b1) (Some (cbvar b2)) t' e') m2) as (sb & EB & SimB).
    { rewrite Eb. simpl. exact KB. }
    destruct (tgt_bind a A1 (if1_k so (Some b0) t el) m sb m2) as (sa & EA & SimA).
    { rewrite Ea. simpl. exact EB. }
    exists sa, m2. split; [exact EA|]. split; [lia|].
    intros q e IE.
    pose proof (int_env_app_r _ _ _ IE) as IE2. pose proof (int_env_app_r _ _ _ IE2) as IE3.
    destruct (SimA T q e I1 L (int_env_app_l _ _ _ IE)) as (da & xa & Fa & Ra & La).
    rewrite Ea in Fa, La. simpl in Fa, La.
    assert (AGa : forall v, cid_id v <= T -> clookup (xa ++ e) v = clookup e v).
    { intros v Hv. eapply clookup_fresh; eauto. lia. }
    assert (AG0 : forall v, In v (avars b0) -> clookup (xa ++ e) v = clookup e v) by (intros v Hv; apply AGa; exact (avars_le T b0 A2 I2 v Hv)).
    destruct (SimB T q (xa ++ e) I2 ltac:(lia) (int_env_agree _ _ _ (int_env_app_l _ _ _ IE2) AG0)) as (db & xb & Fb & Rb & Lb).
    rewrite Eb in Fb, Lb. simpl in Fb, Lb.
    rewrite (aeval_agree b0 e (xa ++ e) A2 AG0) in Rb, Lb.
    destruct (SimB2 q e (xb ++ xa ++ e) IE3) as (dd & Rd).
    { intros v Hv. rewrite (clookup_fresh ma mb xb); auto; lia. }
    exists (da + (db + (5 + dd)))%nat. intros fuel out.
    rewrite <- Nat.add_assoc. rewrite Ra.
    destruct (aeval e a) as [x|w]; [|apply finish_done].
    rewrite <- Nat.add_assoc. rewrite Rb.
    destruct (aeval e b0) as [y|w]; [|apply finish_done].
    assert (L1 : clookup (xb ++ xa ++ e) (cbvar b1) = Some (BP (PInt x))).
    { rewrite clookup_skip; [apply La; auto|]. intros y0 w Hy E. subst. specialize (Fb _ _ Hy). lia. }
    assert (L2 : clookup (xb ++ xa ++ e) (cbvar b2) = Some (BP (PInt y))) by (apply Lb; auto).
    (* five steps: ifc starts its first operand, b1 is looked up, its value starts the second, b2 is looked up,
       the comparison selects the branch *)
    simpl fs2c_stmt. change (5 + dd + fuel)%nat with (S (S (S (S (S (dd + fuel)))))).
    mstep. lk L1. mstep. lk L2. mstep. apply (Rd (eval_cmp (ax_ifsort so) x y)).
  + destruct (tgt_branches t el IHt IHel A3 A4 T ma I3 I4 ltac:(lia)) as (t' & m1 & e' & m2 & Et & Ee & Lm & SimB2).
    destruct (tgt_bind a A1 (if1_k so None t el) m (FsIfC so (cbvar b1) None t' e') m2) as (sa & EA & SimA).
    { rewrite Ea. simpl. rewrite Et; simpl. rewrite Ee; simpl. reflexivity. }
    exists sa, m2. split; [exact EA|]. split; [lia|].
    intros q e IE.
    pose proof (int_env_app_r _ _ _ IE) as IE2. pose proof (int_env_app_r _ _ _ IE2) as IE3.
    destruct (SimA T q e I1 L (int_env_app_l _ _ _ IE)) as (da & xa & Fa & Ra & La).
    rewrite Ea in Fa, La. simpl in Fa, La.
    destruct (SimB2 q e (xa ++ e) IE3) as (dd & Rd).
    { intros v Hv. eapply clookup_fresh; eauto. lia. }
    exists (da + (3 + dd))%nat. intros fuel out.
    rewrite <- Nat.add_assoc. rewrite Ra.
    destruct (aeval e a) as [x|w]; [|apply finish_done].
    assert (L1 : clookup (xa ++ e) (cbvar b1) = Some (BP (PInt x))) by (apply La; auto).
    (* three steps: ifc starts its operand, b1 is looked up, the comparison with 0 selects the branch *)
    simpl fs2c_stmt. change (3 + dd + fuel)%nat with (S (S (S (dd + fuel)))).
    mstep. lk L1. mstep. apply (Rd (eval_cmp (ax_ifsort so) x 0)).
Qed.

Lemma tgt_print : forall nl a n, TS n -> TS (CPrint nl a n).
Proof.
  intros nl a n IHn A m T I L. simpl in A, I |- *.
  apply andb_true_iff in A. destruct A as [A1 A2]. apply andb_true_iff in I. destruct I as [I1 I2].
  destruct (abind a m) as [b1 ma] eqn:Ea.
  pose proof (abind_mono a m) as Ma. rewrite Ea in Ma. simpl in Ma.
  destruct (IHn A2 ma T I2 ltac:(lia)) as (n' & m1 & En & Ln & SimN).
  destruct (tgt_bind a A1 (print_k nl n) m (FsPrint nl (cbvar b1) n') m1) as (sa & EA & SimA).
  { rewrite Ea. simpl. unfold print_k. rewrite En; simpl. reflexivity. }
  exists sa, m1. split; [exact EA|]. split; [lia|].
  intros q e IE.
  destruct (SimA T q e I1 L (int_env_app_l _ _ _ IE)) as (da & xa & Fa & Ra & La).
  rewrite Ea in Fa, La. simpl in Fa, La.
  assert (AGa : forall v, In v (avars_stmt n) -> clookup (xa ++ e) v = clookup e v).
  { intros v Hv. eapply clookup_fresh; eauto. pose proof (avars_stmt_le T n A2 I2 v Hv). lia. }
  destruct (SimN q (xa ++ e) (int_env_agree _ _ _ (int_env_app_r _ _ _ IE) AGa)) as (dn & Rn).
  rewrite (aexec_agree n e (xa ++ e) A2 AGa) in Rn.
  exists (da + (3 + dn))%nat. intros fuel out.
  rewrite <- Nat.add_assoc. rewrite Ra.
  destruct (aeval e a) as [z|w]; [|apply finish_done].
  assert (L1 : clookup (xa ++ e) (cbvar b1) = Some (BP (PInt z))) by (apply La; auto).
  (* three steps: print starts its operand, b1 is looked up, the value is printed *)
  simpl fs2c_stmt. change (3 + dn + fuel)%nat with (S (S (S (dn + fuel)))).
  mstep. lk L1. erewrite crun_print; [| simpl; reflexivity].
  rewrite Rn. apply done_cons.
Qed.

Lemma tgt_exit : forall a ty, TS (CExit a ty).
Proof.
  intros a ty A m T I L. simpl in A, I |- *.
  destruct (abind a m) as [b1 ma] eqn:Ea.
  pose proof (abind_mono a m) as Ma. rewrite Ea in Ma. simpl in Ma.
  destruct (tgt_bind a A exit_k m (FsExit (cbvar b1)) ma) as (sa & EA & SimA).
  { rewrite Ea. reflexivity. }
  exists sa, ma. split; [exact EA|]. split; [lia|].
  intros q e IE.
  destruct (SimA T q e I L IE) as (da & xa & Fa & Ra & La).
  rewrite Ea in Fa, La. simpl in Fa, La.
  exists (da + 3)%nat. intros fuel out.
  rewrite <- Nat.add_assoc. rewrite Ra.
  destruct (aeval e a) as [z|w]; [|apply finish_done].
  assert (L1 : clookup (xa ++ e) (cbvar b1) = Some (BP (PInt z))) by (apply La; auto).
  (* three steps: exit starts its operand, b1 is looked up, the machine halts *)
  simpl fs2c_stmt. change (3 + fuel)%nat with (S (S (S fuel))).
  mstep. lk L1. erewrite crun_halt; [| simpl; reflexivity]. apply finish_done.
Qed.

Lemma tgt_stmt : forall s, TS s.
Proof.
  induction s as [pp ty kk|so a b t IHt el IHel|nl a n IHn|f args ty|a ty]; try (intros A; discriminate).
  - apply tgt_ifc; assumption.
  - apply tgt_print; assumption.
  - apply tgt_exit.
Qed.

Definition entry_ok (p : cprog) : bool :=
  match cpdefs p with
  | d :: _ =>
      astmt (cdbody d)
      && forallb (fun b => match cbchi b with CPrd => true | CCns => false end && negb (N.eqb (cid_id (cbvar b)) 0)) (cdctx d)
      && forallb (fun v => existsb (cident_eqb v) (cvars (cdctx d))) (avars_stmt (cdbody d))
      && ids_le_stmt (cpmax p) (cdbody d)
  | [] => false
  end.

Lemma uq_context_nonzero : forall bs m,
  forallb (fun b => negb (N.eqb (cid_id (cbvar b)) 0)) bs = true -> uq_context bs m [] [] [] = (bs, [], [], m).
Proof.
  induction bs as [|b r IH]; intros m H; simpl in *; auto.
  apply andb_true_iff in H. destruct H as [H1 H2]. apply negb_true_iff in H1. rewrite H1.
  rewrite uq_context_acc. rewrite IH; auto.
Qed.

Lemma uq_aterm_id : forall t, aterm t = true -> forall f m, (depth_term t <= f)%nat -> uq_term f t m = Ok (t, m).
Proof.
  induction t; simpl; intros A f m D; try discriminate; (destruct f as [|f]; [lia|]); simpl; auto.
  apply andb_true_iff in A. destruct A as [A1 A2].
  rewrite IHt1; auto; try lia. simpl. rewrite IHt2; auto; try lia.
Qed.
Lemma uq_astmt_id : forall s, astmt s = true -> forall f m, (depth_stmt s <= f)%nat -> uq_stmt f s m = Ok (s, m).
Proof.
  induction s as [pp ty kk|so a b t IHt el IHel|nl a n IHn|g args ty|a ty]; simpl; intros A f m D; try discriminate;
    (destruct f as [|f]; [lia|]); simpl.
  - destruct (andb4 _ _ _ _ A) as (A1 & A2 & A3 & A4).
    rewrite uq_aterm_id; auto; try lia. simpl.
    destruct b as [b0|]; simpl.
    + rewrite uq_aterm_id; auto; try lia. simpl. rewrite IHt; auto; try lia. simpl. rewrite IHel; auto; try lia.
    + rewrite IHt; auto; try lia. simpl. rewrite IHel; auto; try lia.
  - apply andb_true_iff in A. destruct A as [A1 A2].
    rewrite uq_aterm_id; auto; try lia. simpl. rewrite IHn; auto; try lia.
  - rewrite uq_aterm_id; auto; try lia.
Qed.

Lemma cbind_lookup_int : forall xs vs e x,
  cbind xs vs [] = Some e -> (forall v, In v vs -> exists z, v = BP (PInt z)) -> In x xs ->
  exists z, clookup e x = Some (BP (PInt z)).
Proof.
  induction xs as [|y xs IH]; intros vs e x H V Hx; [destruct Hx|].
  destruct vs as [|v vs]; simpl in H; [discriminate|].
  destruct (cbind xs vs []) as [e'|] eqn:E; [|discriminate]. inversion H; subst. simpl.
  destruct (cident_eqb y x) eqn:Q.
  - destruct (V v (or_introl eq_refl)) as (z & ->). eauto.
  - destruct Hx as [->|Hx]; [rewrite cident_eqb_refl in Q; discriminate|].
    eapply IH; eauto. intros; apply V; right; auto.
Qed.

Lemma aexec_not_oof : forall s e, snd (aexec e s) <> OOutOfFuel.
Proof.
  induction s as [pp ty kk|so a b t IHt el IHel|nl a n IHn|g args ty|a ty]; intros e; simpl; try discriminate.
  - destruct (aeval e a); [|simpl; discriminate]. destruct b as [b0|].
    + destruct (aeval e b0); [|simpl; discriminate]. destruct (eval_cmp _ _ _); auto.
    + destruct (eval_cmp _ _ _); auto.
  - destruct (aeval e a); simpl; [apply IHn | discriminate].
  - destruct (aeval e a); simpl; discriminate.
Qed.

Lemma maprs_head : forall (X Y : Type) (g : X -> N -> res (Y * N)) x l m r,
  maprs g (x :: l) m = Ok r -> exists y m1 l', g x m = Ok (y, m1) /\ fst r = y :: l'.
Proof.
  intros X Y g x l m r H. simpl in H. destruct (g x m) as [[y m1]|]; simpl in H; [|discriminate].
  destruct (maprs g l m1) as [[l' m2]|]; simpl in H; [|discriminate]. inversion H; subst. simpl. eauto.
Qed.

Theorem focus_preserves_straight_line : forall p q args,
  pre_check p = true -> focus_wf p = true -> entry_ok p = true -> focus_prog p = Ok q ->
  exists n, forall fuel, (n <= fuel)%nat ->
    run_fs fuel q args = run_core fuel p args /\ snd (run_core fuel p args) <> OOutOfFuel.
Proof.
  intros p q args P W EO FQ. unfold entry_ok in EO.
  destruct (cpdefs p) as [|d ds] eqn:Dp; [discriminate|].
  apply andb_true_iff in EO. destruct EO as [EO Ib]. apply andb_true_iff in EO. destruct EO as [EO Cl].
  apply andb_true_iff in EO. destruct EO as [Ab Pc].
  destruct d as [name ctx body]. simpl in *.
  (* uniquify leaves the entry definition alone *)
  assert (NZ : forallb (fun b => negb (N.eqb (cid_id (cbvar b)) 0)) ctx = true).
  { eapply forallb_impl; [|exact Pc]. intros x _ H. apply andb_true_iff in H. tauto. }
  assert (UD : forall m, uq_def (mkcd name ctx body) m = Ok (mkcd name ctx body, m)).
  { intros m. unfold uq_def; simpl. rewrite uq_context_nonzero by auto. simpl.
    rewrite uq_astmt_id; auto. }
  unfold focus_prog, uniquify_prog in FQ. rewrite Dp in FQ.
  destruct (uq_defs_spec (cpdefs p) (cpmax p) (cpmax p)) as (ds1 & M & E1 & LM & _); try lia.
  { apply wf_pre_forall; split; auto. }
  rewrite Dp in E1. rewrite E1 in FQ. simpl in FQ.
  destruct (maprs_head _ _ _ _ _ _ _ E1) as (d1 & m1 & l1 & Ed1 & El1). rewrite UD in Ed1. inversion Ed1; subst d1 m1.
  simpl in El1. subst ds1.
  destruct (maprs focus_def (mkcd name ctx body :: l1) M) as [[qs M']|] eqn:E2; simpl in FQ; [|discriminate].
  inversion FQ; subst q. clear FQ.
  destruct (maprs_head _ _ _ _ _ _ _ E2) as (q0 & m2 & l2 & Eq0 & El2). simpl in El2. subst qs.
  unfold focus_def in Eq0. simpl in Eq0.
  destruct (tgt_stmt body Ab M (cpmax p) Ib LM) as (s' & m' & Es & _ & SimT).
  rewrite Es in Eq0. simpl in Eq0. inversion Eq0; subst q0 m2.
  unfold run_fs, run_core. simpl. rewrite Dp. simpl. unfold centry_env. simpl.
  destruct (forallb (fun b => match cbchi b with CPrd => true | CCns => false end) ctx); [|exists 0%nat; intros; split; [reflexivity | simpl; discriminate]].
  destruct (cbind (cvars ctx) (map (fun z => BP (PInt z)) args) []) as [e|] eqn:Ee;
    [|exists 0%nat; intros; split; [reflexivity | simpl; discriminate]].
  assert (IE : int_env e (avars_stmt body)).
  { intros v Hv. rewrite forallb_forall in Cl. specialize (Cl v Hv). apply existsb_exists in Cl.
    destruct Cl as (y & Hy & Q). apply cident_eqb_eq in Q. subst y.
    eapply cbind_lookup_int; eauto. intros b Hb. apply in_map_iff in Hb. destruct Hb as (z & <- & _). eauto. }
  destruct (src_stmt body Ab e IE) as (d1 & R1).
  destruct (SimT (fs2c_prog {| fspdefs := {| fsdname := name; fsdctx := ctx; fsdbody := s' |} :: l2;
                              fspdata := cpdata p; fspcodata := cpcodata p; fspmax := M' |}) e IE) as (d2 & R2).
  exists (d1 + d2)%nat. intros fuel Hf.
  replace fuel with (d1 + (fuel - d1))%nat at 2 3 by lia.
  replace fuel with (d2 + (fuel - d2))%nat at 1 by lia.
  rewrite R1. simpl in R2. rewrite R2. split; [reflexivity|]. unfold done; simpl. apply aexec_not_oof.
Qed.
