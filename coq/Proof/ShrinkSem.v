(* Proof/ShrinkSem.v - semantic preservation of shrinking for the FIRST-ORDER INTEGER FRAGMENT:
   statements built from   <n | mu~ x.s>   <a op b | mu~ x.s>   ifc   print   exit   f(x1..xn)
   with integer producer arguments only (no covariables, no data/codata, hence no continuation
   closures).  For these programs: the Core machine of Sem/CoreSem.v on the focused program and the
   AxCut named machine of Sem/AxSem.v on the shrunk program produce the same prints and the same
   outcome whenever the Core run ends with `exit` or with undefined arithmetic.
   Everything that involves consumers (integer continuations, renaming cuts, data and codata, known
   cuts, eta expansion, lifted statements) is outside this fragment; the whole language is covered,
   under its own hypotheses, by Proof/ShrinkSimProg.v and Proof/ShrinkSimClosed.v.  The file also holds
   the statement-level definitions [frag], [consistent], [good] and the example program [ex_prog]. *)
From Coq Require Import List ZArith NArith String Bool Lia Wf_nat.
From SCC Require Import Proof.CoreInd.
From SCC Require Import Base.Sexp Lang.SynUtil Lang.CoreSyn Lang.AxSyn Sem.AxSem Sem.FsCheck Model.Shrink Proof.ShrinkProof.
From SCC Require Sem.CoreSem.
Import ListNotations.
Open Scope list_scope.

Definition int_binding (b : cbinding) : bool := cchi_eqb (cbchi b) CPrd && cty_eqb (cbty b) CI64.
Fixpoint frag (s : fsstmt) : bool :=
  match s with
  | FsCut (FsLit _) _ (FsMu _ _ s' _) => frag s'
  | FsCut (FsOp _ _ _) _ (FsMu _ _ s' _) => frag s'
  | FsIfC _ _ _ t e => frag t && frag e
  | FsPrint _ _ n => frag n
  | FsCall _ args => forallb int_binding args
  | FsExit _ => true
  | _ => false
  end.
Definition frag_def (d : fsdef) : bool := forallb int_binding (fsdctx d) && frag (fsdbody d).
Definition frag_prog (p : fsprog) : bool := forallb frag_def (fspdefs p).

(* on the fragment shrinking is a homomorphism and does not touch the state *)
Fixpoint shf (codata : list ctydecl) (s : fsstmt) : stmt :=
  match s with
  | FsCut (FsLit n) _ (FsMu _ x s' _) => Literal n x (shf codata s')
  | FsCut (FsOp a o b) _ (FsMu _ x s' _) => Op a (shrink_binop o) b x (shf codata s')
  | FsIfC so a b t e => IfC (shrink_ifsort so) a b (shf codata t) (shf codata e)
  | FsPrint nl a n => PrintI64 nl a (shf codata n)
  | FsCall f args => Call f (shrink_context codata args)
  | FsExit v => Exit v
  | _ => Exit (EmptyString, 0%N)
  end.

Lemma shrink_frag : forall E fuel s st,
  frag s = true -> fsz s <= fuel -> shrink_stmt fuel E s st = SOk (shf (e_codata E) s, st).
Proof.
  intros E fuel. induction fuel as [|fuel IH]; intros s st Hf Hsz; [pose proof (fsz_pos s); lia|].
  destruct s as [p ty k|so a b t e|nl a nx|f args|v]; simpl in Hf.
  - destruct p; try discriminate Hf; destruct k; try discriminate Hf; simpl in Hsz; simpl.
    + rewrite IH; [reflexivity | auto | lia].
    + rewrite IH; [reflexivity | auto | lia].
  - apply andb_prop in Hf as [Ht He]. simpl in Hsz. simpl.
    rewrite IH; [|auto|lia]. simpl. rewrite IH; [|auto|lia]. simpl. destruct b; reflexivity.
  - simpl in Hsz. simpl. rewrite IH; [reflexivity | auto | lia].
  - reflexivity.
  - reflexivity.
Qed.

Definition ienv := list (cident * Z).
Definition cenv_of (ie : ienv) : CoreSem.cenv := map (fun p => (fst p, CoreSem.BP (CoreSem.PInt (snd p)))) ie.
Definition aenv_of (ie : ienv) : env := map (fun p => (fst p, VInt (snd p))) ie.
Fixpoint ilookup (ie : ienv) (x : cident) : option Z :=
  match ie with
  | [] => None
  | (y, z) :: r => if cident_eqb y x then Some z else ilookup r x
  end.
(* identifiers with the same id have the same name *)
Definition consistent (l : list cident) : Prop := forall x y, In x l -> In y l -> snd x = snd y -> x = y.

Lemma clookup_cenv : forall ie x,
  CoreSem.clookup (cenv_of ie) x = option_map (fun z => CoreSem.BP (CoreSem.PInt z)) (ilookup ie x).
Proof.
  induction ie as [|[y z] r IH]; intros x; simpl; [reflexivity|].
  destruct (cident_eqb y x); [reflexivity | apply IH].
Qed.
Lemma lookup_id_aenv : forall ie x L, consistent L -> incl (map fst ie) L -> In x L ->
  lookup_id (aenv_of ie) x = option_map VInt (ilookup ie x).
Proof.
  unfold lookup_id. induction ie as [|[y z] r IH]; intros x L HL Hi Hx; simpl; [reflexivity|].
  assert (Hy : In y L) by (apply Hi; now left).
  destruct (cident_eqb y x) eqn:He.
  - apply cident_eqb_eq in He. subst. unfold idn. now rewrite N.eqb_refl.
  - destruct (N.eqb (idn y) (idn x)) eqn:Hn.
    + apply N.eqb_eq in Hn. unfold idn in Hn. apply (HL y x Hy Hx) in Hn. subst. rewrite cident_eqb_refl in He. discriminate.
    + eapply IH; eauto. intros w Hw. apply Hi. now right.
Qed.
Lemma lookup_aenv : forall ie x L, consistent L -> incl (map fst ie) L -> In x L ->
  lookup_int (aenv_of ie) x = ilookup ie x.
Proof.
  intros. unfold lookup_int. rewrite (lookup_id_aenv ie x L); auto. destruct (ilookup ie x); reflexivity.
Qed.

Fixpoint idents (s : fsstmt) : list cident :=
  match s with
  | FsCut (FsLit _) _ (FsMu _ x s' _) => x :: idents s'
  | FsCut (FsOp a _ b) _ (FsMu _ x s' _) => a :: b :: x :: idents s'
  | FsIfC _ a b t e => a :: (match b with Some b' => [b'] | None => [] end) ++ idents t ++ idents e
  | FsPrint _ a n => a :: idents n
  | FsCall _ args => cvars args
  | FsExit v => [v]
  | _ => []
  end.

Definition good (r : obs) : Prop := match snd r with OExit _ | OUndef _ => True | _ => False end.
Lemma not_good_finish_stuck : forall out w, ~ good (finish out (OStuck w)).
Proof. intros out w H. exact H. Qed.
Lemma not_good_finish_fuel : forall out, ~ good (finish out OOutOfFuel).
Proof. intros out H. exact H. Qed.

Lemma crun_S : forall n P c out,
  CoreSem.crun (S n) P c out =
  match CoreSem.cstep P c with
  | CoreSem.SNext c' => CoreSem.crun n P c' out
  | CoreSem.SPrint nl z c' => CoreSem.crun n P c' ((nl, z) :: out)
  | CoreSem.SHalt o => finish out o
  end.
Proof. reflexivity. Qed.

Lemma ax_binop_shrink : forall o, CoreSem.ax_binop o = shrink_binop o.
Proof. destruct o; reflexivity. Qed.
Lemma ax_ifsort_shrink : forall s, CoreSem.ax_ifsort s = shrink_ifsort s.
Proof. destruct s; reflexivity. Qed.

Lemma find_map_gen : forall {A B} (g : A -> B) (fa : A -> bool) (fb : B -> bool) l,
  (forall a, fb (g a) = fa a) -> find fb (map g l) = option_map g (find fa l).
Proof.
  intros A B g fa fb l H. induction l as [|a r IH]; simpl; [reflexivity|]. rewrite H. destruct (fa a); [reflexivity | exact IH].
Qed.

(* one step of the Core machine on a run that ends well: out of fuel is not a good end *)
Ltac out_of_fuel H Hg := simpl in H; subst; exfalso; exact Hg.
Ltac core_step H Hg n :=
  destruct n as [|n]; [out_of_fuel H Hg | rewrite crun_S in H; cbn [CoreSem.cstep CoreSem.as_int] in H].

Section Sim.
Variable p : fsprog.
Variable q : prog.
Notation P := (CoreSem.fs2c_prog p).
Notation codata := (fspcodata p).
Definition shf_def (cd : list ctydecl) (d : fsdef) : def := mkd (fsdname d) (shrink_context cd (fsdctx d)) (shf cd (fsdbody d)).
Hypothesis Hq : pdefs q = map (shf_def codata) (fspdefs p).
Hypothesis Hfrag : frag_prog p = true.
Hypothesis Hcons : forall d, In d (fspdefs p) -> consistent (cvars (fsdctx d) ++ idents (fsdbody d)).

(* one more unit of fuel never hurts the AxCut machine when the run ended *)
Ltac core_lookup H Hg ie x z Hx :=
  rewrite clookup_cenv in H; destruct (ilookup ie x) as [z|] eqn:Hx; cbn [option_map] in H;
  [| unfold CoreSem.stuck in H; subst; exfalso; exact Hg].

Definition conv (z : Z) : CoreSem.bval := CoreSem.BP (CoreSem.PInt z).
Lemma cbind_ints : forall xs zs,
  CoreSem.cbind xs (map conv zs) [] =
  if Nat.eqb (List.length xs) (List.length zs) then Some (cenv_of (combine xs zs)) else None.
Proof.
  induction xs as [|x r IH]; intros [|z zr]; simpl; try reflexivity.
  rewrite IH. destruct (Nat.eqb _ _); reflexivity.
Qed.
Lemma bind_ints : forall (xs : list cident) zs,
  bind xs (map VInt zs) =
  if Nat.eqb (List.length xs) (List.length zs) then Some (aenv_of (combine xs zs)) else None.
Proof.
  induction xs as [|x r IH]; intros [|z zr]; simpl; try reflexivity.
  rewrite IH. destruct (Nat.eqb _ _); reflexivity.
Qed.
Lemma combine_keys : forall (xs : list cident) (zs : list Z), incl (map fst (combine xs zs)) xs.
Proof.
  induction xs as [|x r IH]; intros [|z zr]; simpl; intros w0 Hw0; try contradiction.
  destruct Hw0 as [<-|Hw]; [now left | right; eapply IH; eauto].
Qed.
Definition find_fsdef (f : cident) : option fsdef := find (fun d => cident_eqb (fsdname d) f) (fspdefs p).
Lemma cfind_def_P : forall f, CoreSem.cfind_def P f = option_map CoreSem.fs2c_def (find_fsdef f).
Proof. intros f. unfold CoreSem.cfind_def, find_fsdef. simpl. apply find_map_gen. reflexivity. Qed.
Lemma find_def_q : forall f, find_def q f = option_map (shf_def codata) (find_fsdef f).
Proof. intros f. unfold find_def, find_fsdef. rewrite Hq. apply find_map_gen. reflexivity. Qed.
Lemma vars_shrink_context : forall cd c, vars (shrink_context cd c) = cvars c.
Proof. intros. unfold vars, shrink_context, cvars. rewrite map_map. apply map_ext. intros b. apply shrink_binding_var. Qed.

Lemma lookups_aenv : forall ie xs zs L, consistent L -> incl (map fst ie) L -> incl xs L ->
  omap (ilookup ie) xs = Some zs -> lookups (aenv_of ie) xs = Some (map VInt zs).
Proof.
  induction xs as [|x r IH]; intros zs L HL Hi Hx Ho; simpl in *.
  - inv Ho. reflexivity.
  - destruct (ilookup ie x) as [z|] eqn:Hz; [|discriminate]. simpl in Ho.
    destruct (omap (ilookup ie) r) as [zr|] eqn:Hr; [|discriminate]. inv Ho.
    rewrite (lookup_id_aenv ie x L), Hz; auto; [|apply Hx; now left]. simpl.
    erewrite IH; eauto. intros w Hw. apply Hx. now right.
Qed.

Lemma fs_arg_int : forall b, int_binding b = true -> CoreSem.fs_arg b = CProducer (CXVar CPrd (cbvar b) (cbty b)).
Proof.
  intros [v c t] H. unfold int_binding in H. simpl in H. apply andb_prop in H as [Hc _].
  destruct c; [reflexivity | discriminate].
Qed.
Lemma rev_append_cons_app : forall {X} (x : X) done l, rev_append (x :: done) [] ++ l = rev_append done [] ++ x :: l.
Proof. intros. rewrite !rev_append_rev, !app_nil_r. simpl. now rewrite <- app_assoc. Qed.

(* evaluating the (variable) arguments of a call: one lookup per argument, then finish_args *)
Lemma args_loop : forall rest b done n ie out r f L,
  forallb int_binding (b :: rest) = true -> consistent L -> incl (map fst ie) L -> incl (cvars (b :: rest)) L ->
  CoreSem.crun n P (CoreSem.Arg (CoreSem.fs_arg b) (cenv_of ie)
                      (CoreSem.MArgs done (map CoreSem.fs_arg rest) (cenv_of ie) (CoreSem.FinCall f))) out = r ->
  good r ->
  exists n' zs, n' < n /\ omap (ilookup ie) (cvars (b :: rest)) = Some zs /\
    match CoreSem.finish_args P (CoreSem.FinCall f) (rev_append done [] ++ map conv zs) with
    | CoreSem.SNext c' => CoreSem.crun n' P c' out
    | CoreSem.SPrint nl z c' => CoreSem.crun n' P c' ((nl, z) :: out)
    | CoreSem.SHalt o => finish out o
    end = r.
Proof.
  induction rest as [|b' rest IH]; intros b done n ie out r f L Hf HL Hie Hx H Hg.
  - simpl in Hf. apply andb_prop in Hf as [Hb _]. rewrite (fs_arg_int b Hb) in H.
    core_step H Hg n. core_lookup H Hg ie (cbvar b) z Hz. core_step H Hg n.
    exists n, [z]. split; [lia|]. split; [simpl; now rewrite Hz|].
    cbn [map]. rewrite <- rev_append_cons_app. rewrite app_nil_r. exact H.
  - cbn [forallb] in Hf. apply andb_prop in Hf as [Hb Hr]. rewrite (fs_arg_int b Hb) in H.
    core_step H Hg n. core_lookup H Hg ie (cbvar b) z Hz. core_step H Hg n. cbn [map] in H.
    eapply IH in H; eauto.
    + destruct H as [n' [zs [Hlt [Hzs Hres]]]]. exists n', (z :: zs). split; [lia|]. split.
      * change (cvars (b :: b' :: rest)) with (cbvar b :: cvars (b' :: rest)). cbn [omap]. rewrite Hz. cbn [obind]. rewrite Hzs. reflexivity.
      * cbn [map]. rewrite <- rev_append_cons_app. exact Hres.
    + intros w Hw. apply Hx. now right.
Qed.

Lemma exec_named_S_literal : forall m z x s ae out,
  exec_named (S m) q ae (Literal z x s) out = exec_named m q ((x, VInt z) :: ae) s out.
Proof. reflexivity. Qed.

Lemma sim : forall n s ie out L r,
  frag s = true -> consistent L -> incl (map fst ie) L -> incl (idents s) L ->
  CoreSem.crun n P (CoreSem.Run (CoreSem.fs2c_stmt s) (cenv_of ie)) out = r -> good r ->
  exists m, exec_named m q (aenv_of ie) (shf codata s) out = r.
Proof.
  induction n as [n IH] using lt_wf_ind. intros s ie out L r Hf HL Hie Hs H Hg.
  destruct s as [pr ty k|so a b t e|nl a nx|f args|v]; simpl in Hf.
  - destruct pr as [| z | a o b | | |]; try discriminate Hf; destruct k as [| | | c x s' t | |]; try discriminate Hf.
    + (* literal *)
      cbn [CoreSem.fs2c_stmt CoreSem.fs2c_term] in H. core_step H Hg n.
      destruct (IH n (Nat.lt_succ_diag_r n) s' ((x, z) :: ie) out L r) as [m Hm]; auto.
      * intros w [<-|Hw]; [apply Hs; now left | now apply Hie].
      * intros w Hw. apply Hs. now right.
      * exists (S m). exact Hm.
    + (* operation *)
      cbn [CoreSem.fs2c_stmt CoreSem.fs2c_term] in H. unfold CoreSem.fs_var in H.
      core_step H Hg n. core_step H Hg n. core_lookup H Hg ie a za Ha.
      core_step H Hg n. core_step H Hg n. core_lookup H Hg ie b zb Hb.
      core_step H Hg n. rewrite ax_binop_shrink in H.
      assert (Hla : lookup_int (aenv_of ie) a = Some za).
      { rewrite (lookup_aenv ie a L); auto. apply Hs. simpl. auto. }
      assert (Hlb : lookup_int (aenv_of ie) b = Some zb).
      { rewrite (lookup_aenv ie b L); auto. apply Hs. simpl. auto. }
      destruct (eval_op (shrink_binop o) za zb) as [z|why] eqn:Hop.
      * core_step H Hg n.
        destruct (IH n ltac:(lia) s' ((x, z) :: ie) out L r) as [m Hm]; auto.
        -- intros w [<-|Hw]; [apply Hs; simpl; auto | now apply Hie].
        -- intros w Hw. apply Hs. simpl. auto.
        -- exists (S m). cbn [shf exec_named]. rewrite Hla, Hlb, Hop. exact Hm.
      * exists 1. cbn [shf exec_named]. rewrite Hla, Hlb, Hop. exact H.
  - (* ifc *)
    apply andb_prop in Hf as [Hft Hfe].
    cbn [CoreSem.fs2c_stmt] in H. unfold CoreSem.fs_var in H.
    core_step H Hg n. core_step H Hg n. core_lookup H Hg ie a za Ha.
    assert (Hla : lookup_int (aenv_of ie) a = Some za).
    { rewrite (lookup_aenv ie a L); auto. apply Hs. simpl. auto. }
    core_step H Hg n. destruct b as [b|]; cbn [option_map] in H.
    + core_step H Hg n. core_lookup H Hg ie b zb Hb.
      assert (Hlb : lookup_int (aenv_of ie) b = Some zb).
      { rewrite (lookup_aenv ie b L); auto. apply Hs. simpl. auto. }
      core_step H Hg n. rewrite ax_ifsort_shrink in H.
      destruct (IH n ltac:(lia) (if eval_cmp (shrink_ifsort so) za zb then t else e) ie out L r) as [m Hm]; auto.
      * destruct (eval_cmp _ _ _); auto.
      * intros w Hw. apply Hs. simpl. right. right. apply in_or_app. destruct (eval_cmp _ _ _); auto.
      * destruct (eval_cmp _ _ _); exact H.
      * exists (S m). cbn [shf exec_named]. rewrite Hla, Hlb. destruct (eval_cmp _ _ _); exact Hm.
    + rewrite ax_ifsort_shrink in H.
      destruct (IH n ltac:(lia) (if eval_cmp (shrink_ifsort so) za 0 then t else e) ie out L r) as [m Hm]; auto.
      * destruct (eval_cmp _ _ _); auto.
      * intros w Hw. apply Hs. simpl. right. apply in_or_app. destruct (eval_cmp _ _ _); auto.
      * destruct (eval_cmp _ _ _); exact H.
      * exists (S m). cbn [shf exec_named]. rewrite Hla. destruct (eval_cmp _ _ _); exact Hm.
  - (* print *)
    cbn [CoreSem.fs2c_stmt] in H. unfold CoreSem.fs_var in H.
    core_step H Hg n. core_step H Hg n. core_lookup H Hg ie a za Ha.
    assert (Hla : lookup_int (aenv_of ie) a = Some za).
    { rewrite (lookup_aenv ie a L); auto. apply Hs. simpl. auto. }
    core_step H Hg n.
    destruct (IH n ltac:(lia) nx ie ((nl, za) :: out) L r) as [m Hm]; auto.
    + intros w Hw. apply Hs. simpl. auto.
    + exists (S m). cbn [shf exec_named]. rewrite Hla. exact Hm.
  - (* call *)
    cbn [CoreSem.fs2c_stmt] in H. core_step H Hg n.
    assert (Hloop : exists n' zs, n' <= n /\ omap (ilookup ie) (cvars args) = Some zs /\
      match CoreSem.finish_args P (CoreSem.FinCall f) (map conv zs) with
      | CoreSem.SNext c' => CoreSem.crun n' P c' out
      | CoreSem.SPrint nl z c' => CoreSem.crun n' P c' ((nl, z) :: out)
      | CoreSem.SHalt o => finish out o
      end = r).
    { destruct args as [|b rest]; cbn [map CoreSem.start_args] in H.
      - exists n, []. split; [lia|]. split; [reflexivity | exact H].
      - eapply args_loop in H; eauto. destruct H as [n' [zs [Hlt [Hzs Hres]]]].
        exists n', zs. split; [lia|]. split; auto. }
    clear H. destruct Hloop as [n' [zs [Hle [Hzs Hres]]]].
    unfold CoreSem.finish_args in Hres. rewrite cfind_def_P in Hres.
    destruct (find_fsdef f) as [d|] eqn:Hfd; cbn [option_map] in Hres;
      [| unfold CoreSem.stuck in Hres; subst; exfalso; exact Hg].
    cbn [CoreSem.fs2c_def cdctx cdbody] in Hres. rewrite cbind_ints in Hres.
    destruct (Nat.eqb (List.length (cvars (fsdctx d))) (List.length zs)) eqn:Hlen;
      [| unfold CoreSem.stuck in Hres; subst; exfalso; exact Hg].
    assert (Hd : In d (fspdefs p)) by (unfold find_fsdef in Hfd; now apply find_some in Hfd as [? _]).
    assert (Hfd' : frag_def d = true).
    { unfold frag_prog in Hfrag. rewrite forallb_forall in Hfrag. now apply Hfrag. }
    unfold frag_def in Hfd'. apply andb_prop in Hfd' as [_ Hfb].
    destruct (IH n' ltac:(lia) (fsdbody d) (combine (cvars (fsdctx d)) zs) out
                 (cvars (fsdctx d) ++ idents (fsdbody d)) r) as [m Hm]; auto.
    + intros w Hw. apply in_or_app. left. eapply combine_keys; eauto.
    + intros w Hw. apply in_or_app. now right.
    + exists (S m). cbn [shf exec_named]. rewrite find_def_q, Hfd. cbn [option_map].
      rewrite vars_shrink_context. erewrite lookups_aenv; eauto.
      unfold shf_def. cbn [dctx dbody]. rewrite vars_shrink_context. rewrite bind_ints. rewrite Hlen. exact Hm.
  - (* exit *)
    cbn [CoreSem.fs2c_stmt] in H. unfold CoreSem.fs_var in H.
    core_step H Hg n. core_step H Hg n. core_lookup H Hg ie v zv Hv.
    assert (Hlv : lookup_int (aenv_of ie) v = Some zv).
    { rewrite (lookup_aenv ie v L); auto. apply Hs. simpl. auto. }
    core_step H Hg n. exists 1. cbn [shf exec_named]. rewrite Hlv. exact H.
Qed.
End Sim.

(* on the fragment shrink_prog is the homomorphism, definition by definition *)
Lemma shrink_defs_frag : forall data cd ds used m acc,
  forallb frag_def ds = true ->
  shrink_defs ds data cd used m acc = SOk (frev acc ++ map (shf_def cd) ds, m).
Proof.
  induction ds as [|d r IH]; intros used m acc Hf; simpl.
  - now rewrite app_nil_r.
  - simpl in Hf. apply andb_prop in Hf as [Hd Hr]. unfold frag_def in Hd. apply andb_prop in Hd as [_ Hb].
    unfold shrink_def. rewrite shrink_frag; auto. cbn [sbind s_lifted s_used s_max e_codata].
    rewrite IH; auto. f_equal. f_equal. unfold frev. cbn [rev_append].
    rewrite !rev_append_rev, !app_nil_r. cbn [rev]. rewrite <- !app_assoc. reflexivity.
Qed.

(* shrink_correct for the first-order integer fragment (the header says what lies outside it) *)
Theorem shrink_correct_partial : forall p q n args o,
  frag_prog p = true ->
  (forall d, In d (fspdefs p) -> consistent (cvars (fsdctx d) ++ idents (fsdbody d))) ->
  shrink_prog p = SOk q ->
  CoreSem.run_fs n p args = o -> good o ->
  exists m, run_named m q args = o.
Proof.
  intros p q n args o Hfrag Hcons Hsh Hrun Hg.
  unfold shrink_prog in Hsh. destruct (_ || _); [discriminate|].
  rewrite shrink_defs_frag in Hsh; auto. cbn [sbind] in Hsh. inv Hsh.
  unfold CoreSem.run_fs, CoreSem.run_core in Hg |- *. unfold run_named. cbn [pdefs frev rev_append app].
  cbn [CoreSem.fs2c_prog cpdefs] in *.
  destruct (fspdefs p) as [|d0 ds] eqn:Hdefs; [exfalso; exact Hg|]. cbn [map] in *.
  unfold CoreSem.centry_env in *. cbn [CoreSem.fs2c_def cdctx cdbody] in *.
  destruct (forallb _ (fsdctx d0)); [|exfalso; exact Hg].
  change (map (fun z : Z => CoreSem.BP (CoreSem.PInt z)) args) with (map conv args) in *.
  rewrite cbind_ints in *. unfold entry_env, shf_def. cbn [dctx dbody]. rewrite vars_shrink_context, bind_ints.
  destruct (Nat.eqb _ _); [|exfalso; exact Hg].
  match goal with |- exists m, exec_named m ?Q _ _ _ = _ => eapply (sim p Q) with (L := cvars (fsdctx d0) ++ idents (fsdbody d0)) end.
  - cbn [pdefs]. rewrite Hdefs. reflexivity.
  - exact Hfrag.
  - rewrite Hdefs. exact Hcons.
  - assert (Hd : frag_def d0 = true).
    { unfold frag_prog in Hfrag. rewrite forallb_forall in Hfrag. apply Hfrag. rewrite Hdefs. now left. }
    unfold frag_def in Hd. apply andb_prop in Hd as [_ Hd]. exact Hd.
  - apply Hcons. now left.
  - intros w Hw. apply in_or_app. left. eapply combine_keys; eauto.
  - intros w Hw. apply in_or_app. now right.
  - reflexivity.
  - exact Hg.
Qed.

Open Scope string_scope.
Definition ex_main : fsdef := mkfsd ("main", 0%N) [mkcb ("n", 1%N) CPrd CI64]
  (FsCut (FsOp ("n", 1%N) CSum ("n", 1%N)) CI64
     (FsMu CCns ("x", 2%N) (FsPrint true ("x", 2%N) (FsCall ("f", 0%N) [mkcb ("x", 2%N) CPrd CI64])) CI64)).
Definition ex_f : fsdef := mkfsd ("f", 0%N) [mkcb ("y", 3%N) CPrd CI64]
  (FsIfC CEq ("y", 3%N) None (FsExit ("y", 3%N))
     (FsCut (FsLit 7) CI64 (FsMu CCns ("z", 4%N) (FsExit ("z", 4%N)) CI64))).
Definition ex_prog : fsprog := mkfsp [ex_main; ex_f] [] [] 4%N.
Example ex_in_fragment : frag_prog ex_prog = true /\ wt_fs ex_prog = true /\ unique_binders ex_prog = true.
Proof. vm_compute. auto. Qed.
Example ex_consistent : forall d, In d (fspdefs ex_prog) -> consistent (cvars (fsdctx d) ++ idents (fsdbody d)).
Proof.
  intros d [<-|[<-|[]]]; intros x y Hx Hy Hxy; simpl in Hx, Hy;
    repeat (destruct Hx as [<-|Hx]; [|]); try contradiction;
    repeat (destruct Hy as [<-|Hy]; [|]); try contradiction; try reflexivity; discriminate Hxy.
Qed.
Example ex_runs : exists q, shrink_prog ex_prog = SOk q /\
  CoreSem.run_fs 100 ex_prog [5%Z] = ([(true, 10%Z)], OExit 7) /\ run_named 100 q [5%Z] = ([(true, 10%Z)], OExit 7).
Proof. eexists. split; [vm_compute; reflexivity|]. split; vm_compute; reflexivity. Qed.
