(* C15, arity of type applications: a declared type applied to a wrong number of type arguments -
   too few OR too many, at the top of a type or nested inside its arguments - is rejected by the
   CHECKER (Model.Check.check, i.e. Ty::check / TypeArgs::is_instance `args.len() != params.len()`)
   at every site where a type can be written or arises: definition signature, let annotation,
   destructor type arguments, case type arguments, the type a constructor / `new` is checked
   against, and (since fix eb42971) the types written inside data/codata declarations
   ([arity_decl_field]; the checker before that fix did not: [old_arity_decl_field_refuted]).
   All checker-level statements rest on Ty::check being sound for the specification's [wf_ty],
   whose arity test is Nat.eqb: with the model's test weakened to "fewer" that soundness lemma
   (Proof/CheckPoly.v ty_check_sound) is not provable. *)
From Coq Require Import List ZArith String Bool Permutation Lia.
From SCC Require Import Base.Sexp Lang.SynUtil Lang.FunSyn Model.Check Sem.FunTyping Sem.FunClosed
  Proof.FunInd Proof.FunEq Proof.CheckAnn Proof.TypingReject Proof.CheckBuild Proof.CheckMono Proof.CheckMonoSound
  Proof.CheckMonoProg Proof.CheckWitness Proof.PrintInj Proof.CheckPoly Proof.CheckInstBase Proof.CheckPolySound Proof.CheckPolyProg Proof.CheckDecls.
Import ListNotations.
Open Scope list_scope.

Inductive tyocc (s : fty) : fty -> Prop :=
| tyocc_here : tyocc s s
| tyocc_arg : forall n args a, In a args -> tyocc s a -> tyocc s (FDecl n args).
(* t contains the application of a declared type to a wrong number of arguments *)
Definition bad_arity (ts : list tdecl) (t : fty) : Prop :=
  exists n a td, tyocc (FDecl n a) t /\ find_type ts n = Some td /\ List.length a <> List.length (td_params td).
(* the same inside a declaration with parameters ps (an application of a parameter is a different defect) *)
Definition bad_arity_in_decl (ts : list tdecl) (ps : list fname) (t : fty) : Prop :=
  exists n a td, tyocc (FDecl n a) t /\ mem n ps = false /\ find_type ts n = Some td /\ List.length a <> List.length (td_params td).

Lemma bad_arity_not_wf : forall ts t, bad_arity ts t -> wf_ty ts t = false.
Proof.
  intros ts t [n [a [td [Ho [Hf Hl]]]]]. induction Ho as [|m args b Hin Hocc IH].
  - simpl. rewrite Hf. apply PeanoNat.Nat.eqb_neq in Hl. rewrite Hl. reflexivity.
  - simpl. destruct (find_type ts m); [|reflexivity]. apply andb_false_any. right.
    eapply forallb_false_in; eassumption.
Qed.
Lemma bad_arity_not_wf_tty : forall ts ps t, bad_arity_in_decl ts ps t -> wf_tty ts ps t = false.
Proof.
  intros ts ps t [n [a [td [Ho [Hm [Hf Hl]]]]]]. induction Ho as [|m args b Hin Hocc IH].
  - simpl. rewrite Hm, Hf. apply PeanoNat.Nat.eqb_neq in Hl. rewrite Hl. reflexivity.
  - simpl. destruct (mem m ps).
    + destruct args; [destruct Hin|reflexivity].
    + destruct (find_type ts m); [|reflexivity]. apply andb_false_any. right.
      eapply forallb_false_in; eassumption.
Qed.

(* names: [reject_*] = the rules reject (Proof/TypingReject.v, Proof/CheckScope.v); [*_rejected], [arity_*] = the checker
   rejects, by soundness *)
Lemma check_gen_defs_ok : forall eager p q, prog_names_ok p = true -> check_gen eager p = COk q ->
  forallb (def_ok (tdecls (fpdecls p)) (fdefs (fpdecls p))) (fdefs (fpdecls p)) = true.
Proof.
  intros eager p q Hm H. destruct (check_gen_run eager p q Hm H) as (st & st1 & das & cos & R). exact (pr_sound R).
Qed.
Lemma not_ok_rejected : forall p, (forall q, check p <> COk q) -> exists e, check p = CErr e.
Proof. intros p H. destruct (check p) as [q|e] eqn:E; [exfalso; eapply H; reflexivity|eauto]. Qed.

(* a definition that is not def_ok makes the checker reject *)
Lemma def_not_ok_rejected : forall p d, prog_names_ok p = true -> In d (fdefs (fpdecls p)) ->
  def_ok (tdecls (fpdecls p)) (fdefs (fpdecls p)) d = false -> exists e, check p = CErr e.
Proof.
  intros p d Hm Hin Hf. apply not_ok_rejected. intros q Hq.
  pose proof (check_gen_defs_ok true p q Hm Hq) as H. rewrite forallb_forall in H.
  rewrite (H d Hin) in Hf. discriminate.
Qed.
(* a site (sub-term anywhere in a body) that is ill-typed in every environment at every type *)
Lemma site_rejected : forall p d s, prog_names_ok p = true -> In d (fdefs (fpdecls p)) ->
  occurs s (fdbody d) -> is_var s = false ->
  (forall G T, chk (tdecls (fpdecls p)) (fdefs (fpdecls p)) G s T = false) -> exists e, check p = CErr e.
Proof.
  intros p d s Hm Hin Hocc Hv Hs. eapply def_not_ok_rejected; [eassumption|eassumption|].
  unfold def_ok. rewrite (chk_occurs_false _ _ s Hv Hs _ Hocc). apply andb_false_r.
Qed.

Theorem arity_def_signature : forall p d t, prog_names_ok p = true -> In d (fdefs (fpdecls p)) ->
  In t (fdret d :: map fbty (fdctx d)) -> bad_arity (tdecls (fpdecls p)) t -> exists e, check p = CErr e.
Proof.
  intros p d t Hm Hin Ht Hbad. eapply def_not_ok_rejected; [eassumption|eassumption|].
  apply bad_arity_not_wf in Hbad. unfold def_ok. destruct Ht as [<-|Ht].
  - rewrite Hbad. rewrite andb_false_r. reflexivity.
  - apply in_map_iff in Ht. destruct Ht as [b [<- Hb]].
    rewrite (forallb_false_in (fun b => wf_ty (tdecls (fpdecls p)) (fbty b)) _ b Hb Hbad).
    rewrite andb_false_r. reflexivity.
Qed.

Theorem arity_let_annotation : forall p d x vty a b r, prog_names_ok p = true -> In d (fdefs (fpdecls p)) ->
  occurs (FLet x vty a b r) (fdbody d) -> bad_arity (tdecls (fpdecls p)) vty -> exists e, check p = CErr e.
Proof.
  intros p d x vty a b r Hm Hin Hocc Hbad. eapply site_rejected; try eassumption; [reflexivity|].
  intros G T. simpl. rewrite (bad_arity_not_wf _ _ Hbad). reflexivity.
Qed.

Theorem arity_destructor : forall p d s k targs args r, prog_names_ok p = true -> In d (fdefs (fpdecls p)) ->
  occurs (FDtor s k targs args r) (fdbody d) ->
  (forall td sg, In td (tdecls (fpdecls p)) -> find_xsig td k = Some sg -> List.length targs <> List.length (td_params td))
  \/ (exists t, In t targs /\ bad_arity (tdecls (fpdecls p)) t) ->
  exists e, check p = CErr e.
Proof.
  intros p d s k targs args r Hm Hin Hocc [Hc|[t [Ht Hbad]]].
  - eapply site_rejected; try eassumption; [reflexivity|]. apply dtor_type_arg_count. exact Hc.
  - eapply site_rejected; try eassumption; [reflexivity|]. intros G T. simpl.
    destruct (find_xtor (tdecls (fpdecls p)) FCodata k) as [[td sg]|]; [|reflexivity].
    rewrite (forallb_false_in _ _ t Ht (bad_arity_not_wf _ _ Hbad)). rewrite andb_false_r. reflexivity.
Qed.

Theorem arity_case : forall p d s targs c0 cls r, prog_names_ok p = true -> In d (fdefs (fpdecls p)) ->
  occurs (FCase s targs (c0 :: cls) r) (fdbody d) ->
  (forall td sg, In td (tdecls (fpdecls p)) -> find_xsig td (clause_xtor c0) = Some sg -> List.length targs <> List.length (td_params td))
  \/ (exists t, In t targs /\ bad_arity (tdecls (fpdecls p)) t) ->
  exists e, check p = CErr e.
Proof.
  intros p d s targs c0 cls r Hm Hin Hocc [Hc|[t [Ht Hbad]]].
  - eapply site_rejected; try eassumption; [reflexivity|]. apply case_type_arg_count. exact Hc.
  - eapply site_rejected; try eassumption; [reflexivity|]. intros G T. simpl.
    destruct (find_xtor (tdecls (fpdecls p)) FData (clause_xtor c0)) as [[td sg]|]; [|reflexivity].
    rewrite (forallb_false_in _ _ t Ht (bad_arity_not_wf _ _ Hbad)). rewrite andb_false_r. reflexivity.
Qed.

(* constructor and `new` (the type arguments are those of the expected type): in every state the checker can be in ([tables], [pinv]: established by build_symbol_table and
   preserved by every step, Proof/CheckPolySound.v), checking a constructor or a `new` against a
   declared type applied to a wrong number of arguments fails *)
Section Local.
  Variable ts : list tdecl.
  Variable fs : list fdef.
  Hypothesis W : poly_world ts fs.

  (* soundness read backwards: what the rules reject in the checker's context, the checker rejects *)
  Lemma ill_typed_rejected : forall eager t st ctx T,
    tables ts fs st -> pinv ts st -> ctx_names_ok ctx = true -> term_names_ok t = true -> ty_names_ok T = true ->
    chk ts fs (E ctx) t T = false -> exists e, check_term_gen eager t st ctx T = CErr e.
  Proof.
    intros eager t st ctx T Tb I Hc Hm HT Hk.
    destruct (check_term_gen eager t st ctx T) as [[t' st']|e] eqn:E; [|eauto].
    destruct (check_term_gen_psound ts fs W _ eager st ctx _ t' st' Hm Hc HT Tb I E) as [K _]. congruence.
  Qed.
  Theorem arity_constructor : forall eager st ctx x args r n targs td,
    tables ts fs st -> pinv ts st -> ctx_names_ok ctx = true ->
    term_names_ok (FCtor x args r) = true -> ty_names_ok (FDecl n targs) = true ->
    find_type ts n = Some td -> List.length targs <> List.length (td_params td) ->
    exists e, check_term_gen eager (FCtor x args r) st ctx (FDecl n targs) = CErr e.
  Proof.
    intros eager st ctx x args r n targs td Tb I Hc Hm HT Hf Hl. apply ill_typed_rejected; try assumption.
    simpl. rewrite Hf. apply PeanoNat.Nat.eqb_neq in Hl. rewrite Hl, andb_false_r. reflexivity.
  Qed.
  Theorem arity_new : forall eager st ctx cls r n targs td,
    tables ts fs st -> pinv ts st -> ctx_names_ok ctx = true ->
    term_names_ok (FNew cls r) = true -> ty_names_ok (FDecl n targs) = true ->
    find_type ts n = Some td -> List.length targs <> List.length (td_params td) ->
    exists e, check_term_gen eager (FNew cls r) st ctx (FDecl n targs) = CErr e.
  Proof.
    intros eager st ctx cls r n targs td Tb I Hc Hm HT Hf Hl. apply ill_typed_rejected; try assumption.
    simpl. rewrite Hf. apply PeanoNat.Nat.eqb_neq in Hl. rewrite Hl, andb_false_r. reflexivity.
  Qed.
  (* Ty::check itself, on any type containing a wrong application *)
  Theorem arity_ty_check : forall st t, tables ts fs st -> pinv ts st -> ty_names_ok t = true ->
    bad_arity ts t -> exists e, ty_check t st = CErr e.
  Proof.
    intros st t Tb I Hn Hbad. destruct (ty_check t st) as [st'|e] eqn:E; [|eauto].
    exfalso. destruct (ty_check_sound ts fs W t st st' Hn Tb I E) as [Hw _].
    rewrite (bad_arity_not_wf _ _ Hbad) in Hw. discriminate.
  Qed.
End Local.

(* the specification rejects, for all programs ... *)
Theorem reject_wrong_type_argument_count_decl_field : forall p td s t,
  In td (tdecls (fpdecls p)) -> In s (td_xtors td) ->
  (In t (map fbty (xs_args s)) \/ xs_ret s = Some t) ->
  bad_arity_in_decl (tdecls (fpdecls p)) (td_params td) t -> has_type_b p = false.
Proof.
  intros p td s t Htd Hs Ht Hbad. apply bad_arity_not_wf_tty in Hbad.
  unfold has_type_b. apply andb_false_any. left. apply andb_false_any. right.
  unfold decls_ok. eapply forallb_false_in; [exact Htd|]. unfold tdecl_ok. apply andb_false_any. right.
  eapply forallb_false_in; [exact Hs|]. unfold xsig_ok. destruct Ht as [Ht|Ht].
  - apply in_map_iff in Ht. destruct Ht as [b [<- Hb]]. apply andb_false_any. left.
    eapply forallb_false_in; [exact Hb|exact Hbad].
  - rewrite Ht, Hbad. apply andb_false_r.
Qed.
(* ... and so does the checker since fix eb42971 (Ty::check_template checks the whole type), for ALL programs ... *)
Theorem arity_decl_field : forall p td s t, In td (tdecls (fpdecls p)) -> In s (td_xtors td) ->
  (In t (map fbty (xs_args s)) \/ xs_ret s = Some t) ->
  bad_arity_in_decl (tdecls (fpdecls p)) (td_params td) t -> exists e, check p = CErr e.
Proof.
  intros p td s t Htd Hs Ht Hbad. apply bad_arity_not_wf_tty in Hbad.
  apply check_gen_rejects_ill_formed_decl. unfold decl_types_wf.
  eapply forallb_false_in; [exact Htd|].
  eapply forallb_false_in; [exact Hs|]. unfold xsig_ok. destruct Ht as [Ht|Ht].
  - apply in_map_iff in Ht. destruct Ht as [b [<- Hb]]. apply andb_false_any. left.
    eapply forallb_false_in; [exact Hb|exact Hbad].
  - rewrite Ht, Hbad. apply andb_false_r.
Qed.
(* ... regression: the checker before that fix did not (witness: data Foo { C(x: List) } with List[A] declared;
   finding C15-lazy-declaration-types) *)
Theorem old_arity_decl_field_refuted :
  ~ (forall p td s t, prog_names_ok p = true -> In td (tdecls (fpdecls p)) -> In s (td_xtors td) ->
       (In t (map fbty (xs_args s)) \/ xs_ret s = Some t) ->
       bad_arity_in_decl (tdecls (fpdecls p)) (td_params td) t -> exists e, old_check_decls p = CErr e).
Proof.
  intro H.
  destruct (H p_decl_type_args
              (mktdecl "Foo" FData [] [mkxsig "C" [mkfb "x" FPrd (FDecl "List" [])] None])
              (mkxsig "C" [mkfb "x" FPrd (FDecl "List" [])] None) (FDecl "List" [])) as [e He].
  - vm_compute. reflexivity.
  - simpl. right. left. reflexivity.
  - simpl. left. reflexivity.
  - left. simpl. left. reflexivity.
  - exists "List"%string, [], (mktdecl "List" FData ["A"%string]
        [mkxsig "Nil" [] None; mkxsig "Cons" [mkfb "x" FPrd (FDecl "A" []); mkfb "xs" FPrd (FDecl "List" [FDecl "A" []])] None]).
    split; [constructor|]. split; [reflexivity|]. split; [reflexivity|]. simpl. discriminate.
  - destruct decl_type_args_accepted_before_fix as [q Hq]. rewrite Hq in He. discriminate.
Qed.

Local Open Scope string_scope.
Definition d_list : fdecl :=
  FDData (mkfdata "List" ["A"] [mkfctor "Nil" []; mkfctor "Cons" [mkfb "x" FPrd (FDecl "A" []); mkfb "xs" FPrd (FDecl "List" [FDecl "A" []])]]).
Definition d_fun : fdecl := FDCodata (mkfcodata "Fun" ["A"; "B"] [mkfdtor "ap" [mkfb "x" FPrd (FDecl "A" [])] (FDecl "B" [])]).
(* def f(l: List[i64, i64]): i64 { 0 }      surplus argument in a signature *)
Definition p_arity_sig : fprog := mkfprog [d_list; FDDef (mkfdef "f" [mkfb "l" FPrd (FDecl "List" [FI64; FI64])] FI64 (FLit 0))].
(* def f(): i64 { let l: List[List] = Nil; 0 }      missing argument, nested *)
Definition p_arity_let : fprog :=
  mkfprog [d_list; FDDef (mkfdef "f" [] FI64 (FLet "l" (FDecl "List" [FDecl "List" []]) (FCtor "Nil" [] None) (FLit 0) None))].
(* def f(g: Fun[i64, i64]): i64 { g.ap[i64, i64, i64](1) }      surplus argument at a destructor *)
Definition p_arity_dtor : fprog :=
  mkfprog [d_fun; FDDef (mkfdef "f" [mkfb "g" FPrd (FDecl "Fun" [FI64; FI64])] FI64
                           (FDtor (FVar "g" None None) "ap" [FI64; FI64; FI64] [FLit 1] None))].
(* def f(l: List[i64]): i64 { l.case[i64, i64] { Nil => 0, Cons(x, xs) => 1 } }      surplus argument at a case *)
Definition p_arity_case : fprog :=
  mkfprog [d_list; FDDef (mkfdef "f" [mkfb "l" FPrd (FDecl "List" [FI64])] FI64
                            (FCase (FVar "l" None None) [FI64; FI64]
                               [FClause FData "Nil" [] [] (FLit 0); FClause FData "Cons" ["x"; "xs"] [] (FLit 1)] None))].
Lemma arity_examples :
  check p_arity_sig = CErr EWrongNumberOfTypeArguments /\ check p_arity_let = CErr EWrongNumberOfTypeArguments
  /\ check p_arity_dtor = CErr EWrongNumberOfTypeArguments /\ check p_arity_case = CErr EWrongNumberOfTypeArguments
  /\ prog_names_ok p_arity_sig = true /\ prog_names_ok p_arity_let = true
  /\ prog_names_ok p_arity_dtor = true /\ prog_names_ok p_arity_case = true.
Proof. do 7 (split; [vm_compute; reflexivity|]). vm_compute. reflexivity. Qed.
Lemma bad_arity_example_surplus : bad_arity (tdecls (fpdecls p_arity_sig)) (FDecl "List" [FI64; FI64]).
Proof.
  eexists "List", [FI64; FI64], _. split; [constructor|]. split; [reflexivity|]. simpl. discriminate.
Qed.
Lemma bad_arity_example_nested_missing : bad_arity (tdecls (fpdecls p_arity_let)) (FDecl "List" [FDecl "List" []]).
Proof.
  eexists "List", [], _. split; [eapply tyocc_arg; [left; reflexivity|constructor]|]. split; [reflexivity|]. simpl. discriminate.
Qed.
