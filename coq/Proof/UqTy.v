(* `uniquify` preserves typing (C12).
   1. [rn_all]: the shadow-aware simultaneous substitution of VARIABLES FOR VARIABLES (the only kind
      uniquify performs) maps a term typed in Gc to a term typed in Gc', when every pair (k, CXVar c n ty)
      of the variable (covariable) list renames a producer (consumer) binding k : ty of Gc to a binding
      n : ty of Gc', the other bindings of Gc are in Gc', and the new names are above every id of the term.
   In Proof/UqTyProg.v:
   2. [uqc_ren]: the loop over a parameter / clause context produces such a renaming.
   3. [ut_all] (induction on the fuel of the model): uq_term / uq_clause / uq_stmt preserve typing; calls
      are re-typed against the renamed parameter lists of the uniquified definitions. *)
From Coq Require Import List ZArith NArith String Bool Lia.
From SCC Require Import Base.Sexp Lang.SynUtil Lang.CoreSyn Sem.FsCheck Sem.CoreCheck
     Model.Backend Model.Uniquify Model.FocusCheck
     Proof.CoreInd Proof.SubstProof Proof.CheckLemmas Proof.FocusKont Proof.UqSubst Proof.UqAeq Proof.UqProof
     Proof.CoreTyRules.
Import ListNotations.
Open Scope list_scope.
Open Scope N_scope.

Definition rho (ps cs : csubst) (c : cchi) (x : cident) : cident := sname (subst_find x (sel c ps cs)) x.
Definition ent_ok (Gc : cctx) (c : cchi) (s : csubst) : Prop :=
  forall k t, In (k, t) s -> exists n ty, t = CXVar c n ty /\ clookup Gc k = Some (mkcb k c ty).
Definition ren_ok (Gc Gc' : cctx) (ps cs : csubst) : Prop :=
  ent_ok Gc CPrd ps /\ ent_ok Gc CCns cs /\
  forall x b, clookup Gc x = Some b ->
    clookup Gc' (rho ps cs (cbchi b) x) = Some (mkcb (rho ps cs (cbchi b) x) (cbchi b) (cbty b)).
(* ids of the new names: above T, at most T' *)
Definition tgt_in (T T' : N) (s : csubst) : Prop :=
  forall k t, In (k, t) s -> forall c n ty, t = CXVar c n ty -> T < cid_id n <= T'.

Lemma tgt_in_filter : forall T T' f s, tgt_in T T' s -> tgt_in T T' (filter f s).
Proof. intros T T' f s H k t Hin. apply filter_In in Hin. apply (H k t). tauto. Qed.
Lemma ent_ok_in : forall Gc c s x t, ent_ok Gc c s -> subst_find x s = Some t ->
  exists n ty, t = CXVar c n ty /\ clookup Gc x = Some (mkcb x c ty).
Proof. intros Gc c s x t H Hf. apply subst_find_key in Hf. destruct Hf as [_ Hin]. exact (H x t Hin). Qed.

Lemma rho_cases : forall ps cs c x,
  (subst_find x (sel c ps cs) = None /\ rho ps cs c x = x) \/
  (exists t, subst_find x (sel c ps cs) = Some t /\ rho ps cs c x = sname (Some t) x).
Proof. intros. unfold rho. destruct (subst_find x (sel c ps cs)) as [t|]; [right; eauto | left; auto]. Qed.

(* a renamed occurrence carries an id from the interval of the new names *)
Lemma rho_target : forall Gc ps cs T T' c x,
  ent_ok Gc CPrd ps -> ent_ok Gc CCns cs -> tgt_in T T' ps -> tgt_in T T' cs ->
  rho ps cs c x = x \/ T < cid_id (rho ps cs c x) <= T'.
Proof.
  intros Gc ps cs T T' c x E1 E2 TV TC.
  destruct (rho_cases ps cs c x) as [[_ Hr]|[t [Hf Hr]]]; [left; exact Hr | right; rewrite Hr].
  apply subst_find_key in Hf. destruct Hf as [_ Hf].
  destruct c; simpl in Hf;
    [destruct (E1 _ _ Hf) as [n [ty [-> _]]]; exact (TV _ _ Hf _ _ _ eq_refl)
    | destruct (E2 _ _ Hf) as [n [ty [-> _]]]; exact (TC _ _ Hf _ _ _ eq_refl)].
Qed.

(* under binders A (ids <= T): the pairs keyed by a binder are dropped *)
Lemma ren_ok_under : forall A (g : cident -> bool) Gc Gc' ps cs T T',
  (forall k, g k = negb (existsb (cident_eqb k) (cvars A))) ->
  ren_ok Gc Gc' ps cs -> tgt_in T T' ps -> tgt_in T T' cs -> mem_le T (cids A) ->
  ren_ok (A ++ Gc) (A ++ Gc') (filter (fun p => g (fst p)) ps) (filter (fun p => g (fst p)) cs).
Proof.
  intros A g Gc Gc' ps cs T T' Hg [E1 [E2 HB]] T1 T2 HA.
  assert (Hin : forall k, g k = true <-> ~ In k (cvars A)).
  { intros k. rewrite Hg, negb_true_iff. split.
    - intros H Hk. assert (existsb (cident_eqb k) (cvars A) = true); [|congruence].
      apply existsb_exists. exists k. split; [exact Hk | apply cident_eqb_refl].
    - intros H. destruct (existsb (cident_eqb k) (cvars A)) eqn:E; [|reflexivity].
      apply existsb_exists in E. destruct E as [y [Hy Ey]]. apply cident_eqb_eq in Ey. subst y. contradiction. }
  assert (Hent : forall c s, ent_ok Gc c s -> ent_ok (A ++ Gc) c (filter (fun p => g (fst p)) s)).
  { intros c s H k t Hk. apply filter_In in Hk. destruct Hk as [Hk Hgk]. simpl in Hgk. apply Hin in Hgk.
    destruct (H k t Hk) as [n [ty [-> Hl]]]. exists n, ty. split; [reflexivity|].
    rewrite clookup_app. apply clookup_none in Hgk. rewrite Hgk. exact Hl. }
  split; [apply Hent; exact E1|]. split; [apply Hent; exact E2|].
  intros x b Hx. rewrite clookup_app in Hx. unfold rho.
  assert (Hsel : forall c, sel c (filter (fun p => g (fst p)) ps) (filter (fun p => g (fst p)) cs) = filter (fun p => g (fst p)) (sel c ps cs))
    by (intros [|]; reflexivity).
  rewrite Hsel.
  destruct (clookup A x) as [b'|] eqn:EA.
  - injection Hx as ->. assert (Hgx : g x = false).
    { destruct (g x) eqn:E; [|reflexivity]. apply Hin in E. exfalso. apply E. rewrite <- (clookup_var _ _ _ EA).
      apply in_map. eapply clookup_In; exact EA. }
    rewrite (subst_find_filter_drop g x _ Hgx). simpl. rewrite clookup_app, EA.
    pose proof (clookup_var _ _ _ EA) as Hv. destruct b as [v c ty]. simpl in *. subst v. reflexivity.
  - assert (Hgx : g x = true) by (apply Hin; apply clookup_none; exact EA).
    rewrite (subst_find_filter_keep g x _ Hgx). fold (rho ps cs (cbchi b) x).
    rewrite clookup_app.
    assert (EA' : clookup A (rho ps cs (cbchi b) x) = None).
    { destruct (rho_cases ps cs (cbchi b) x) as [[_ ->]|[t [Hf ->]]]; [exact EA|].
      apply subst_find_key in Hf. destruct Hf as [_ Hf].
      assert (Ht : exists c n ty, t = CXVar c n ty).
      { destruct (cbchi b); simpl in Hf; [destruct (E1 _ _ Hf) as [n [ty [-> _]]] | destruct (E2 _ _ Hf) as [n [ty [-> _]]]]; eauto. }
      destruct Ht as [c [n [ty ->]]]. simpl. apply clookup_none. intros Hn.
      assert (Hid : T < cid_id n) by (destruct (cbchi b); simpl in Hf; [apply (T1 _ _ Hf c n ty eq_refl) | apply (T2 _ _ Hf c n ty eq_refl)]).
      assert (cid_id n <= T); [|lia]. apply HA. unfold cvars in Hn. apply in_map_iff in Hn. destruct Hn as [b0 [E0 H0]].
      unfold cids. apply in_map_iff. exists b0. split; [rewrite E0; reflexivity | exact H0]. }
    rewrite EA'. apply HB. exact Hx.
Qed.

Lemma cclauses_match_headers : forall side n cls cls' xs,
  Forall2 (fun cl cl' => match cl, cl' with CClause c x ctx _, CClause c' x' ctx' _ => c' = c /\ x' = x /\ ctx' = ctx end) cls cls' ->
  cclauses_match side n cls xs = None -> cclauses_match side n cls' xs = None.
Proof.
  intros side n cls cls' xs H. revert xs. induction H as [|cl cl' r r' Hh Hr IH]; intros xs Hm; [exact Hm|].
  destruct cl as [c x ctx b], cl' as [c' x' ctx' b']. destruct Hh as [-> [-> ->]].
  destruct xs as [|sg xr]; [discriminate|]. cbn [cclauses_match] in *.
  apply seqn in Hm. destruct Hm as [H1 Hm]. apply seqn in Hm. destruct Hm as [H2 Hm]. apply seqn in Hm. destruct Hm as [H3 Hm].
  apply seqn in Hm. destruct Hm as [H4 Hm].
  apply seqn. split; [exact H1|]. apply seqn. split; [exact H2|]. apply seqn. split; [exact H3|]. apply seqn. split; [exact H4|].
  apply IH. exact Hm.
Qed.

Section Rn.
Variables (data codata : list ctydecl) (defs : list cdef).
Notation ct := (ccheck_term data codata defs).
Notation cs := (ccheck_stmt data codata defs).
Notation arg_typed := (arg_typed data codata defs).
Notation args_typed := (args_typed data codata defs).
Notation clause_typed := (clause_typed data codata defs).

Definition RNt (t : cterm) : Prop := forall c ps cs0 Gc Gc' ty T T',
  ct Gc c ty t = None -> ren_ok Gc Gc' ps cs0 -> tgt_in T T' ps -> tgt_in T T' cs0 -> ids_le_term T t = true -> T <= T' ->
  exists t', subst_term c t ps cs0 = Ok t' /\ ct Gc' c ty t' = None /\ ids_le_term T' t' = true.
Definition RNa (a : carg) : Prop := forall ps cs0 Gc Gc' s T T',
  arg_typed Gc a s -> ren_ok Gc Gc' ps cs0 -> tgt_in T T' ps -> tgt_in T T' cs0 -> ids_le_arg T a = true -> T <= T' ->
  exists a', subst_arg a ps cs0 = Ok a' /\ arg_typed Gc' a' s /\ ids_le_arg T' a' = true.
Definition RNc (cl : cclause) : Prop := forall ps cs0 Gc Gc' T T',
  clause_typed Gc cl -> ren_ok Gc Gc' ps cs0 -> tgt_in T T' ps -> tgt_in T T' cs0 -> ids_le_clause T cl = true -> T <= T' ->
  exists cl', subst_clause cl ps cs0 = Ok cl' /\ clause_typed Gc' cl' /\ ids_le_clause T' cl' = true /\
    match cl, cl' with CClause c x ctx _, CClause c' x' ctx' _ => c' = c /\ x' = x /\ ctx' = ctx end.
Definition RNs (s : cstmt) : Prop := forall ps cs0 Gc Gc' T T',
  cs Gc s = None -> ren_ok Gc Gc' ps cs0 -> tgt_in T T' ps -> tgt_in T T' cs0 -> ids_le_stmt T s = true -> T <= T' ->
  exists s', subst_stmt s ps cs0 = Ok s' /\ cs Gc' s' = None /\ ids_le_stmt T' s' = true.

Lemma rn_args : forall args, Forall RNa args -> forall ps cs0 Gc Gc' sig T T',
  args_typed Gc args sig -> ren_ok Gc Gc' ps cs0 -> tgt_in T T' ps -> tgt_in T T' cs0 ->
  forallb (ids_le_arg T) args = true -> T <= T' ->
  exists args', mapr (fun a => subst_arg a ps cs0) args = Ok args' /\ args_typed Gc' args' sig /\
                forallb (ids_le_arg T') args' = true.
Proof.
  induction 1 as [|a r Ha Hr IH]; intros ps cs0 Gc Gc' sig T T' Ht Hro T1 T2 Hid LE.
  - inversion Ht; subst. exists []. repeat split; constructor.
  - inversion Ht as [|? s ? sr Hs Hrs]; subst. simpl in Hid. apply andb_true_iff in Hid. destruct Hid as [Hid1 Hid2].
    destruct (Ha ps cs0 Gc Gc' s T T' Hs Hro T1 T2 Hid1 LE) as [a' [E1 [A1 A2]]].
    destruct (IH ps cs0 Gc Gc' sr T T' Hrs Hro T1 T2 Hid2 LE) as [r' [E2 [R1 R2]]].
    exists (a' :: r'). simpl. rewrite E1. simpl. rewrite E2. simpl. split; [reflexivity|].
    split; [constructor; assumption|]. rewrite A2, R2. reflexivity.
Qed.
Lemma rn_clauses : forall cls, Forall RNc cls -> forall ps cs0 Gc Gc' T T',
  Forall (clause_typed Gc) cls -> ren_ok Gc Gc' ps cs0 -> tgt_in T T' ps -> tgt_in T T' cs0 ->
  forallb (ids_le_clause T) cls = true -> T <= T' ->
  exists cls', mapr (fun cl => subst_clause cl ps cs0) cls = Ok cls' /\ Forall (clause_typed Gc') cls' /\
    forallb (ids_le_clause T') cls' = true /\
    Forall2 (fun cl cl' => match cl, cl' with CClause c x ctx _, CClause c' x' ctx' _ => c' = c /\ x' = x /\ ctx' = ctx end) cls cls'.
Proof.
  induction 1 as [|a r Ha Hr IH]; intros ps cs0 Gc Gc' T T' Ht Hro T1 T2 Hid LE.
  - exists []. repeat split; constructor.
  - inversion Ht as [|? ? Hs Hrs]; subst. simpl in Hid. apply andb_true_iff in Hid. destruct Hid as [Hid1 Hid2].
    destruct (Ha ps cs0 Gc Gc' T T' Hs Hro T1 T2 Hid1 LE) as [a' [E1 [A1 [A2 A3]]]].
    destruct (IH ps cs0 Gc Gc' T T' Hrs Hro T1 T2 Hid2 LE) as [r' [E2 [R1 [R2 R3]]]].
    exists (a' :: r'). simpl. rewrite E1. simpl. rewrite E2. simpl. split; [reflexivity|].
    split; [constructor; assumption|]. split; [rewrite A2, R2; reflexivity | constructor; assumption].
Qed.

Lemma rn_all : (forall t, RNt t) /\ (forall a, RNa a) /\ (forall c, RNc c) /\ (forall s, RNs s).
Proof.
  apply core_mutind.
  - (* XVar *)
    intros c0 v ty0 c ps cs0 Gc Gc' ty T T' Ht [E1 [E2 HB]] T1 T2 Hid LE.
    apply ct_var in Ht. destruct Ht as [-> [-> Hl]]. simpl in Hid. apply N.leb_le in Hid. simpl.
    specialize (HB v _ Hl). cbn [cbchi cbty] in HB. unfold rho in HB.
    destruct (subst_find v (sel c ps cs0)) as [t|] eqn:Ef.
    + assert (Ht : exists n, t = CXVar c n ty /\ T < cid_id n <= T').
      { destruct c; simpl in Ef.
        - destruct (ent_ok_in _ _ _ _ _ E1 Ef) as [n [ty' [-> Hl']]]. rewrite Hl in Hl'. injection Hl' as <-.
          exists n. split; [reflexivity|]. apply subst_find_key in Ef. destruct Ef as [_ Ef]. exact (T1 _ _ Ef _ _ _ eq_refl).
        - destruct (ent_ok_in _ _ _ _ _ E2 Ef) as [n [ty' [-> Hl']]]. rewrite Hl in Hl'. injection Hl' as <-.
          exists n. split; [reflexivity|]. apply subst_find_key in Ef. destruct Ef as [_ Ef]. exact (T2 _ _ Ef _ _ _ eq_refl). }
      destruct Ht as [n [-> Hn]]. simpl in HB. exists (CXVar c n ty).
      split; [cbn [subst_term]; unfold sel in Ef; rewrite Ef; reflexivity|]. split.
      * apply ct_var. repeat split. exact HB.
      * simpl. apply N.leb_le. lia.
    + simpl in HB. exists (CXVar c v ty).
      split; [cbn [subst_term]; unfold sel in Ef; rewrite Ef; reflexivity|]. split; [apply ct_var; repeat split; exact HB|].
      simpl. apply N.leb_le. lia.
  - (* Lit *)
    intros n c ps cs0 Gc Gc' ty T T' Ht _ _ _ _ _. apply ct_lit in Ht. destruct Ht as [-> ->].
    exists (CLit n). split; [reflexivity|]. split; [apply ct_lit; auto | reflexivity].
  - (* Op *)
    intros a o b IHa IHb c ps cs0 Gc Gc' ty T T' Ht Hro T1 T2 Hid LE.
    apply ct_op in Ht. destruct Ht as [-> [-> [Ha Hb]]]. simpl in Hid. apply andb_true_iff in Hid. destruct Hid as [Hi1 Hi2].
    destruct (IHa CPrd ps cs0 Gc Gc' CI64 T T' Ha Hro T1 T2 Hi1 LE) as [a' [E1 [A1 A2]]].
    destruct (IHb CPrd ps cs0 Gc Gc' CI64 T T' Hb Hro T1 T2 Hi2 LE) as [b' [E2 [B1 B2]]].
    exists (COp a' o b'). simpl. rewrite E1. simpl. rewrite E2. simpl. split; [reflexivity|].
    split; [apply ct_op; auto|]. simpl. rewrite A2, B2. reflexivity.
  - (* Mu *)
    intros c0 v s ty0 IHs c ps cs0 Gc Gc' ty T T' Ht Hro T1 T2 Hid LE.
    apply ct_mu in Ht. destruct Ht as [-> [-> Hs]]. simpl in Hid. apply andb_true_iff in Hid. destruct Hid as [Hiv His].
    apply N.leb_le in Hiv.
    assert (Hro' : ren_ok ([mkcb v (opp c) ty] ++ Gc) ([mkcb v (opp c) ty] ++ Gc') (subst_remove v ps) (subst_remove v cs0)).
    { apply (ren_ok_under [mkcb v (opp c) ty] (fun k => negb (cident_eqb k v)) Gc Gc' ps cs0 T T'); auto.
      - intros k. simpl. rewrite orb_false_r. reflexivity.
      - intros i [<-|[]]. exact Hiv. }
    destruct (IHs (subst_remove v ps) (subst_remove v cs0) _ _ T T' Hs Hro') as [s' [E1 [S1 S2]]]; auto.
    { apply tgt_in_filter. exact T1. } { apply tgt_in_filter. exact T2. }
    exists (CMu c v s' ty). simpl. rewrite E1. simpl. split; [reflexivity|]. split; [apply ct_mu; auto|].
    simpl. rewrite S2. apply andb_true_iff. split; [apply N.leb_le; lia | reflexivity].
  - (* Xtor *)
    intros c0 x args ty0 IHa c ps cs0 Gc Gc' ty T T' Ht Hro T1 T2 Hid LE.
    apply ct_xtor in Ht. destruct Ht as [-> [-> [n [d [sg [-> [Hd [Hsg Ha]]]]]]]]. simpl in Hid.
    destruct (rn_args args IHa ps cs0 Gc Gc' _ T T' Ha Hro T1 T2 Hid LE) as [args' [E1 [A1 A2]]].
    exists (CXtor c x args' (CDecl n)). simpl. rewrite E1. simpl. split; [reflexivity|]. split; [|exact A2].
    apply ct_xtor. repeat split. exists n, d, sg. auto.
  - (* XCase *)
    intros c0 cls ty0 IHc c ps cs0 Gc Gc' ty T T' Ht Hro T1 T2 Hid LE.
    apply ct_xcase in Ht. destruct Ht as [-> [-> [n [d [-> [Hd [Hm Hcl]]]]]]]. simpl in Hid.
    destruct (rn_clauses cls IHc ps cs0 Gc Gc' T T' Hcl Hro T1 T2 Hid LE) as [cls' [E1 [C1 [C2 C3]]]].
    exists (CXCase c cls' (CDecl n)). simpl. rewrite E1. simpl. split; [reflexivity|]. split; [|exact C2].
    apply ct_xcase. repeat split. exists n, d. repeat split; auto. eapply cclauses_match_headers; eauto.
  - (* Producer *)
    intros p IH ps cs0 Gc Gc' s T T' Ht Hro T1 T2 Hid LE. unfold CoreTyRules.arg_typed in *.
    destruct (cbchi s) eqn:Ec; [|contradiction].
    destruct (IH CPrd ps cs0 Gc Gc' (cbty s) T T' Ht Hro T1 T2 Hid LE) as [p' [E1 [P1 P2]]].
    exists (CProducer p'). simpl. rewrite E1. simpl. auto.
  - (* Consumer *)
    intros p IH ps cs0 Gc Gc' s T T' Ht Hro T1 T2 Hid LE. unfold CoreTyRules.arg_typed in *.
    destruct (cbchi s) eqn:Ec; [contradiction|].
    destruct (IH CCns ps cs0 Gc Gc' (cbty s) T T' Ht Hro T1 T2 Hid LE) as [p' [E1 [P1 P2]]].
    exists (CConsumer p'). simpl. rewrite E1. simpl. auto.
  - (* Clause *)
    intros c x ctx body IHb ps cs0 Gc Gc' T T' Ht Hro T1 T2 Hid LE. unfold CoreTyRules.clause_typed in *.
    simpl in Hid. apply andb_true_iff in Hid. destruct Hid as [Hic Hib].
    assert (Hro' : ren_ok (ctx ++ Gc) (ctx ++ Gc') (subst_remove_ctx ctx ps) (subst_remove_ctx ctx cs0)).
    { apply (ren_ok_under ctx (fun k => negb (existsb (cident_eqb k) (cvars ctx))) Gc Gc' ps cs0 T T'); auto.
      apply forallb_leb. exact Hic. }
    destruct (IHb (subst_remove_ctx ctx ps) (subst_remove_ctx ctx cs0) _ _ T T' Ht Hro') as [b' [E1 [B1 B2]]]; auto.
    { apply tgt_in_filter. exact T1. } { apply tgt_in_filter. exact T2. }
    exists (CClause c x ctx b'). simpl. rewrite E1. simpl. split; [reflexivity|]. split; [exact B1|]. split; [|auto].
    simpl. rewrite B2, andb_true_r. eapply forallb_impl; [|exact Hic]. intros i _ Hi. apply N.leb_le in Hi. apply N.leb_le. lia.
  - (* Cut *)
    intros p ty k IHp IHk ps cs0 Gc Gc' T T' Ht Hro T1 T2 Hid LE.
    apply cs_cut in Ht. destruct Ht as [Hty [Hp Hk]]. simpl in Hid. apply andb_true_iff in Hid. destruct Hid as [Hi1 Hi2].
    destruct (IHp CPrd ps cs0 Gc Gc' ty T T' Hp Hro T1 T2 Hi1 LE) as [p' [E1 [P1 P2]]].
    destruct (IHk CCns ps cs0 Gc Gc' ty T T' Hk Hro T1 T2 Hi2 LE) as [k' [E2 [K1 K2]]].
    exists (CCut p' ty k'). simpl. rewrite E1. simpl. rewrite E2. simpl. split; [reflexivity|].
    split; [apply cs_cut; auto|]. simpl. rewrite P2, K2. reflexivity.
  - (* IfC *)
    intros so a b t e IHa IHb IHt IHe ps cs0 Gc Gc' T T' Ht Hro T1 T2 Hid LE.
    apply cs_ifc in Ht. destruct Ht as [Ha [Hb [Htt Hte]]]. simpl in Hid.
    apply andb_true_iff in Hid. destruct Hid as [Hid Hie]. apply andb_true_iff in Hid. destruct Hid as [Hid Hit].
    apply andb_true_iff in Hid. destruct Hid as [Hia Hib].
    destruct (IHa CPrd ps cs0 Gc Gc' CI64 T T' Ha Hro T1 T2 Hia LE) as [a' [E1 [A1 A2]]].
    destruct (IHt ps cs0 Gc Gc' T T' Htt Hro T1 T2 Hit LE) as [t' [E3 [T3 T4]]].
    destruct (IHe ps cs0 Gc Gc' T T' Hte Hro T1 T2 Hie LE) as [e' [E4 [E5 E6]]].
    destruct b as [b0|].
    + simpl in IHb. destruct (IHb CPrd ps cs0 Gc Gc' CI64 T T' Hb Hro T1 T2 Hib LE) as [b' [E2 [B1 B2]]].
      exists (CIfC so a' (Some b') t' e'). simpl. rewrite E1. simpl. rewrite E2. simpl. rewrite E3. simpl. rewrite E4. simpl.
      split; [reflexivity|]. split; [apply cs_ifc; auto|]. simpl. rewrite A2, B2, T4, E6. reflexivity.
    + exists (CIfC so a' None t' e'). simpl. rewrite E1. simpl. rewrite E3. simpl. rewrite E4. simpl.
      split; [reflexivity|]. split; [apply cs_ifc; auto|]. simpl. rewrite A2, T4, E6. reflexivity.
  - (* Print *)
    intros nl a next IHa IHn ps cs0 Gc Gc' T T' Ht Hro T1 T2 Hid LE.
    apply cs_print in Ht. destruct Ht as [Ha Hn]. simpl in Hid. apply andb_true_iff in Hid. destruct Hid as [Hi1 Hi2].
    destruct (IHa CPrd ps cs0 Gc Gc' CI64 T T' Ha Hro T1 T2 Hi1 LE) as [a' [E1 [A1 A2]]].
    destruct (IHn ps cs0 Gc Gc' T T' Hn Hro T1 T2 Hi2 LE) as [n' [E2 [N1 N2]]].
    exists (CPrint nl a' n'). simpl. rewrite E1. simpl. rewrite E2. simpl. split; [reflexivity|].
    split; [apply cs_print; auto|]. simpl. rewrite A2, N2. reflexivity.
  - (* Call *)
    intros f args ty IHa ps cs0 Gc Gc' T T' Ht Hro T1 T2 Hid LE.
    apply cs_call in Ht. destruct Ht as [Hty [d [Hd Ha]]]. simpl in Hid.
    destruct (rn_args args IHa ps cs0 Gc Gc' _ T T' Ha Hro T1 T2 Hid LE) as [args' [E1 [A1 A2]]].
    exists (CCall f args' ty). simpl. rewrite E1. simpl. split; [reflexivity|]. split; [|exact A2].
    apply cs_call. split; [exact Hty|]. exists d. auto.
  - (* Exit *)
    intros a ty IHa ps cs0 Gc Gc' T T' Ht Hro T1 T2 Hid LE.
    apply cs_exit in Ht. destruct Ht as [Hty Ha]. simpl in Hid.
    destruct (IHa CPrd ps cs0 Gc Gc' CI64 T T' Ha Hro T1 T2 Hid LE) as [a' [E1 [A1 A2]]].
    exists (CExit a' ty). simpl. rewrite E1. simpl. split; [reflexivity|]. split; [apply cs_exit; auto | exact A2].
Qed.
Definition rn_stmt := proj2 (proj2 (proj2 rn_all)).
End Rn.
