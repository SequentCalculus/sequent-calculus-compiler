(* C06, forward simulation for HEAP statements: the statements that do not touch the heap
   (Literal, Op, IfC, Exit, PrintI64, Call) under the relation `hrel` of Proof/X86HSimRel.v.  The proofs are
   those of Proof/X86SimStmt.v / X86SimPrint.v (the selection lemmas, `print_ok`, nothing re-proved); the heap
   and the allocator registers are untouched, every live location of every other variable is preserved. *)
From Coq Require Import List ZArith NArith String Bool Lia FMapPositive.
From SCC Require Import Proof.X86Mem Proof.X86MemFrame.
From SCC Require Import Base.Sexp Lang.AxSyn Sem.AxSem Sem.AxHeap Model.ParMoves Model.Backend Model.X86 Sem.X86Sem Sem.X86Wf
     Model.Linearize Model.LinCheck Generated.Constants Proof.LinBasics Proof.X86State Proof.X86Sel Proof.X86Exec Proof.X86ParMoves
     Proof.SubstGraph Proof.X86Subst Proof.X86SimRel Proof.X86SimStmt Proof.X86SimPrint Proof.X86HeapDefs Proof.X86HSimRel.
From SCC Require Model.Heap.
Import ListNotations.
Open Scope Z_scope.
Open Scope list_scope.

Section HSim.
Variable im : image.
Variable types : list tydecl.
Variable CLO : Z -> ident -> list clause -> ctx -> Prop.
Local Notation hrel := (hrel types CLO).

Theorem hsim_literal c he hs s sp n v tv :
  hrel c he hs s sp -> NoDup (ids (c ++ [mkb v Ext I64])) ->
  xvt (c ++ [mkb v Ext I64]) (idn v) = Ok tv ->
  exists s', exec_straight im (x_load_immediate tv n) s = Some s' /\
             hrel (c ++ [mkb v Ext I64]) (he ++ [(v, VInt n, 0)]) hs s' sp /\ frame_eq s s' sp.
Proof.
  intros R ND TV. apply (vt_fresh c v tv ND) in TV.
  destruct (xtpos_ok _ _ _ TV) as (L & NT & _).
  destruct (x86_load_immediate_ok im s sp tv n (hr_frame R) L NT) as (s' & E & V & P).
  exists s'. split; [exact E|]. split; [eapply hrel_push; eauto|].
  exact (proj2 (exec_straight_local im _ s sp s' (local_load_immediate _ _ (loc_ok_lok _ L)) (hr_frame R) E)).
Qed.

Lemma hop_temps c he hs s sp a b v x y tv ta tb :
  hrel c he hs s sp -> NoDup (ids (c ++ [mkb v Ext I64])) ->
  lookup_int (erase_env he) a = Some x -> lookup_int (erase_env he) b = Some y ->
  xvt (c ++ [mkb v Ext I64]) (idn v) = Ok tv ->
  xvt (c ++ [mkb v Ext I64]) (idn a) = Ok ta -> xvt (c ++ [mkb v Ext I64]) (idn b) = Ok tb ->
  xtpos Snd (List.length c) = Ok tv /\ div_pre tv ta tb /\ lget s sp ta = Some x /\ lget s sp tb = Some y.
Proof.
  intros R ND LA LB TV TA TB. apply (vt_fresh c v tv ND) in TV.
  destruct (hrel_operand_app types CLO c _ he hs s sp a x ta R ND LA TA) as (i & Li & Ti & Vi).
  destruct (hrel_operand_app types CLO c _ he hs s sp b y tb R ND LB TB) as (j & Lj & Tj & Vj).
  destruct (xtpos_ok _ _ _ TV) as (L0 & N0 & _). destruct (xtpos_ok _ _ _ Ti) as (L1 & N1 & _).
  destruct (xtpos_ok _ _ _ Tj) as (L2 & N2 & _).
  split; [exact TV|]. split; [|auto].
  unfold div_pre. repeat split; auto.
  - eapply xtpos_snd_not_rax; eauto.
  - intros E. pose proof (xtpos_snd_rdx _ _ TV E). lia.
  - intros E; subst. destruct (SubstGraph.tpos_inj x86_backend x86_backend_ok _ _ _ _ _ TV Ti). lia.
  - intros E; subst. destruct (SubstGraph.tpos_inj x86_backend x86_backend_ok _ _ _ _ _ TV Tj). lia.
  - eapply xtpos_snd_not_rax; eauto.
  - eapply xtpos_snd_not_rax; eauto.
Qed.

Theorem hsim_op c he hs s sp a o b v x y z tv ta tb :
  hrel c he hs s sp -> NoDup (ids (c ++ [mkb v Ext I64])) ->
  lookup_int (erase_env he) a = Some x -> lookup_int (erase_env he) b = Some y -> eval_op o x y = OpVal z ->
  xvt (c ++ [mkb v Ext I64]) (idn v) = Ok tv ->
  xvt (c ++ [mkb v Ext I64]) (idn a) = Ok ta -> xvt (c ++ [mkb v Ext I64]) (idn b) = Ok tb ->
  exists s', exec_straight im (x_arith o tv ta tb) s = Some s' /\
             hrel (c ++ [mkb v Ext I64]) (he ++ [(v, VInt z, 0)]) hs s' sp /\ frame_eq s s' sp.
Proof.
  intros R ND LA LB EV TV TA TB.
  destruct (hop_temps c he hs s sp a b v x y tv ta tb R ND LA LB TV TA TB) as (TV' & PRE & VA & VB).
  destruct (x86_arith_ok im o s sp tv ta tb x y z (hr_frame R) PRE VA VB EV) as (s' & E & V & P).
  exists s'. split; [exact E|]. split; [eapply hrel_push; eauto|].
  exact (proj2 (exec_straight_local im _ s sp s' (local_x_arith _ _ _ _ (loc_ok_lok _ (proj1 PRE))) (hr_frame R) E)).
Qed.

Theorem hsim_op_undef c he hs s sp a o b v x y w tv ta tb :
  hrel c he hs s sp -> NoDup (ids (c ++ [mkb v Ext I64])) ->
  lookup_int (erase_env he) a = Some x -> lookup_int (erase_env he) b = Some y -> eval_op o x y = OpUndef w ->
  xvt (c ++ [mkb v Ext I64]) (idn v) = Ok tv ->
  xvt (c ++ [mkb v Ext I64]) (idn a) = Ok ta -> xvt (c ++ [mkb v Ext I64]) (idn b) = Ok tb ->
  exists s', exec_undef im (x_arith o tv ta tb) s = Some (w, s') /\ out s' = out s.
Proof.
  intros R ND LA LB EV TV TA TB.
  destruct (hop_temps c he hs s sp a b v x y tv ta tb R ND LA LB TV TA TB) as (TV' & PRE & VA & VB).
  destruct o; cbn [eval_op x_arith] in *; try discriminate.
  - apply (div_rem_undef im false s sp tv ta tb x y w (hr_frame R) PRE VA VB).
    destruct (y =? 0); [exact EV|]. destruct ((x =? min_int) && (y =? -1)); [exact EV|discriminate].
  - apply (div_rem_undef im true s sp tv ta tb x y w (hr_frame R) PRE VA VB).
    destruct (y =? 0); [exact EV|]. destruct ((x =? min_int) && (y =? -1)); [exact EV|discriminate].
Qed.

Theorem hsim_compare2 c he hs s sp a b x y ta tb :
  hrel c he hs s sp -> lookup_int (erase_env he) a = Some x -> lookup_int (erase_env he) b = Some y ->
  xvt c (idn a) = Ok ta -> xvt c (idn b) = Ok tb ->
  exists s', exec_straight im (compare ta tb) s = Some s' /\ flags s' = Some (x, y) /\
             hrel c he hs s' sp /\ frame_eq s s' sp.
Proof.
  intros R LA LB TA TB.
  destruct (hrel_operand types CLO c he hs s sp a x ta R LA TA) as (i & _ & Ti & Vi).
  destruct (hrel_operand types CLO c he hs s sp b y tb R LB TB) as (j & _ & Tj & Vj).
  destruct (xtpos_ok _ _ _ Ti) as (L1 & N1 & _). destruct (xtpos_ok _ _ _ Tj) as (L2 & N2 & _).
  destruct (x86_compare_ok im s sp ta tb x y (hr_frame R) L1 L2 N1 N2 Vi Vj) as (s' & E & FL & K & HE & _ & F').
  pose proof (proj2 (exec_straight_local im _ s sp s' (local_compare _ _) (hr_frame R) E)) as FE.
  exists s'. split; [exact E|]. split; [exact FL|]. split; [|exact FE].
  apply (hrel_keep types CLO c he hs s s' sp R F').
  - apply FE.
  - apply (K (XR HEAP)); [cbn; discriminate|discriminate].
  - apply (K (XR FREE)); [cbn; discriminate|discriminate].
  - intros k b0 n t _ _ Hk. destruct (xtpos_ok _ _ _ Hk) as (A & B & _). now apply K.
Qed.
Theorem hsim_compare1 c he hs s sp a x ta :
  hrel c he hs s sp -> lookup_int (erase_env he) a = Some x -> xvt c (idn a) = Ok ta ->
  exists s', exec_straight im (compare_immediate ta 0) s = Some s' /\ flags s' = Some (x, 0) /\
             hrel c he hs s' sp /\ frame_eq s s' sp.
Proof.
  intros R LA TA.
  destruct (hrel_operand types CLO c he hs s sp a x ta R LA TA) as (i & _ & Ti & Vi).
  destruct (xtpos_ok _ _ _ Ti) as (L1 & N1 & _).
  exists (set_flags s (Some (x, 0))). split; [apply (x86_compare_zero_ok im s sp ta x (hr_frame R) L1 Vi)|].
  split; [reflexivity|]. split; [|apply frame_eq_set_flags].
  apply (hrel_keep types CLO c he hs s _ sp R); [apply frame_ok_set_flags, (hr_frame R)|reflexivity|reflexivity|reflexivity|].
  intros k b0 n t _ _ _. apply lget_set_flags.
Qed.

Theorem hsim_ifc c he hs s sp so a b x y thenc elsec lc code lc' pc :
  hrel c he hs s sp -> lookup_int (erase_env he) a = Some x ->
  match b with Some b => lookup_int (erase_env he) b | None => Some 0 end = Some y ->
  xcs types (IfC so a b thenc elsec) c lc = Ok (code, lc') ->
  code_at im pc code -> labels_at_nh im pc code ->
  exists c1 c2 lc2 c3 s',
    code = c1 ++ c2 ++ [LAB (iflabel lc)] ++ c3 /\
    xcs types elsec c (lc + 1)%N = Ok (c2, lc2) /\ xcs types thenc c lc2 = Ok (c3, lc') /\
    exec_to im pc s (if eval_cmp so x y then padd pc (List.length c1 + List.length c2 + 1)
                     else padd pc (List.length c1)) s' /\
    hrel c he hs s' sp /\ frame_eq s s' sp.
Proof.
  intros R LA LB CS CA LBL.
  destruct (cs_ifc _ _ _ _ _ _ _ _ _ _ CS) as (ta & c1 & c2 & lc2 & c3 & TA & C1 & EL & TH & ->).
  exists c1, c2, lc2, c3.
  assert (PRE : exists pre s1, c1 = pre ++ [jcc so (iflabel lc)] /\ exec_straight im pre s = Some s1 /\
                               flags s1 = Some (x, y) /\ hrel c he hs s1 sp /\ frame_eq s s1 sp).
  { destruct b as [b|].
    - destruct C1 as (tb & TB & ->).
      destruct (hsim_compare2 c he hs s sp a b x y ta tb R LA LB TA TB) as (s1 & E & FL & R1 & FE). eauto 8.
    - inversion LB; subst y. destruct (hsim_compare1 c he hs s sp a x ta R LA TA) as (s1 & E & FL & R1 & FE). eauto 8. }
  destruct PRE as (pre & s1 & -> & E & FL & R1 & FE).
  pose proof CA as CA'. rewrite <- app_assoc in CA'. apply code_at_app in CA' as [CApre CArest].
  pose proof (exec_straight_exec_to im pre pc s s1 CApre E) as X1.
  assert (CJ : PM.find (padd pc (List.length pre)) (code im) = Some (jcc so (iflabel lc))).
  { cbn [app] in CArest. apply code_at_cons in CArest as [C0 _]. exact C0. }
  assert (LL : nth_error ((pre ++ [jcc so (iflabel lc)]) ++ c2 ++ [LAB (iflabel lc)] ++ c3)
                         (List.length (pre ++ [jcc so (iflabel lc)]) + List.length c2) = Some (LAB (iflabel lc))).
  { rewrite nth_error_app2 by lia. rewrite nth_error_app2 by lia.
    replace (_ + _ - _ - _)%nat with O by lia. reflexivity. }
  exists s1. split; [reflexivity|]. split; [exact EL|]. split; [exact TH|]. split; [|split; [exact R1|exact FE]].
  pose proof (x86_jcc_step im so (iflabel lc) s1 x y FL) as ST.
  rewrite app_length. cbn [List.length].
  destruct (eval_cmp so x y).
  - rewrite (goto_label_at im pc _ _ _ s1 LBL LL eq_refl) in ST.
    eapply exec_to_trans; [exact X1|].
    eapply exec_jump; [exact CJ|exact ST|].
    eapply exec_next; [apply (code_at_nth im pc _ _ _ CA LL)|reflexivity|].
    rewrite <- padd_succ. rewrite app_length. cbn [List.length].
    replace (S (List.length pre + 1 + List.length c2)) with (List.length pre + 1 + List.length c2 + 1)%nat by lia.
    apply exec_refl.
  - eapply exec_to_trans; [exact X1|].
    eapply exec_next; [exact CJ|exact ST|]. rewrite <- padd_succ.
    replace (S (List.length pre)) with (List.length pre + 1)%nat by lia. apply exec_refl.
Qed.

Theorem hsim_exit_mov c he hs s sp v z tv :
  hrel c he hs s sp -> lookup_int (erase_env he) v = Some z -> xvt c (idn v) = Ok tv ->
  exists s', exec_straight im (x_mov (XR RETURN1) tv) s = Some s' /\ rget s' RETURN1 = Some z /\
             frame_ok s' sp /\ frame_eq s s' sp.
Proof.
  intros R LV TV.
  destruct (hrel_operand types CLO c he hs s sp v z tv R LV TV) as (i & _ & Ti & Vi).
  destruct (xtpos_ok _ _ _ Ti) as (L1 & N1 & _).
  destruct (x86_mov_ok im s sp (XR RETURN1) tv (hr_frame R)) as (s' & E & V & P); auto; try (cbn; discriminate).
  exists s'. split; [exact E|]. split; [cbn [lget] in V; congruence|].
  exact (exec_straight_local im _ s sp s' (local_x_mov (XR RETURN1) tv eq_refl) (hr_frame R) E).
Qed.

Theorem hsim_print c he hs s sp nl v z tv :
  hrel c he hs s sp -> lookup_int (erase_env he) v = Some z -> xvt c (idn v) = Ok tv ->
  exists s', exec_straight im (x_print nl tv c) s = Some s' /\
    hrel c he hs s' sp /\ out s' = (nl, z) :: out s /\ above_eq s s' sp.
Proof.
  intros R LV TV.
  destruct (hrel_operand types CLO c he hs s sp v z tv R LV TV) as (i & Li & Ti & Vi).
  destruct (print_ok im c s sp nl z tv i (hr_frame R) (hr_align R) (hr_room R) Li Ti Vi) as (s' & E & F' & FR & HP & KEEP & OU & AE).
  exists s'. split; [exact E|]. split; [|split; [exact OU|exact AE]].
  exact (hrel_keep types CLO c he hs s s' sp R F' (proj1 AE) HP FR KEEP).
Qed.
End HSim.

(* Call: relabelling by a context of the same kinds *)
Lemma attach_nth : forall (e : env) (ps : list Z) i x v q,
  nth_error (attach e ps) i = Some (x, v, q) -> nth_error e i = Some (x, v) /\ q = nth i ps 0.
Proof.
  induction e as [|xv e IH]; intros ps i x v q H; [destruct i; discriminate|].
  destruct ps as [|p ps]; destruct i as [|i]; cbn [attach nth_error nth] in *.
  - inversion H; subst. auto.
  - destruct (IH [] i x v q H) as [A B]. split; [exact A|]. rewrite B. destruct i; reflexivity.
  - inversion H; subst. auto.
  - exact (IH ps i x v q H).
Qed.
Lemma attach_erase : forall (e : env) ps, erase_env (attach e ps) = e.
Proof.
  induction e as [|xv e IH]; intros ps; [reflexivity|]. destruct ps as [|p ps]; cbn [attach erase_env map fst]; f_equal; apply IH.
Qed.
Lemma ptrs_nth (he : henv) i x v q : nth_error he i = Some (x, v, q) -> nth i (ptrs he) 0 = q.
Proof.
  revert i. induction he as [|en he IH]; intros [|i] H; cbn in *; try discriminate; [inversion H; reflexivity|auto].
Qed.

Lemma nth_error_erase : forall (he : henv) i y v, nth_error (erase_env he) i = Some (y, v) -> exists q, nth_error he i = Some (y, v, q).
Proof.
  induction he as [|[[y0 v0] q0] he IH]; intros [|i] y v H; cbn in *; try discriminate.
  - inversion H; subst. eauto.
  - eauto.
Qed.

Lemma hbind_rel types CLO c he hs st sp (c' : ctx) e' :
  hrel types CLO c he hs st sp -> NoDup (ids c') -> sig_match c c' = true ->
  bind (vars c') (map snd (erase_env he)) = Some e' -> hrel types CLO c' (attach e' (ptrs he)) hs st sp.
Proof.
  intros R ND SM BD. pose proof (hrel_length R) as LE. destruct R as [F Al Ro Hr Fr HQ Ids ND0 Vals]. split; auto.
  - rewrite attach_erase. unfold env_ids. rewrite <- (map_map fst idn), (bind_ids _ _ _ BD). unfold vars, ids. now rewrite map_map.
  - intros i x v q Hi. destruct (attach_nth _ _ _ _ _ _ Hi) as [He' Eq].
    destruct (bind_nth _ _ _ _ _ _ BD He') as (_ & Hv).
    rewrite nth_error_map in Hv. destruct (nth_error (erase_env he) i) as [[y w]|] eqn:He; [|discriminate]. cbn in Hv. inversion Hv; subst w.
    destruct (nth_error_erase he i y v He) as (q0 & Hh).
    destruct (Vals i y v q0 Hh) as (b & Hb & V). destruct (sig_match_nth c c' i b SM Hb) as (b' & Hb' & K & T).
    exists b'. split; [exact Hb'|]. rewrite Eq, (ptrs_nth he i y v q0 Hh).
    apply (hvrep_kind types CLO st sp i b b' v q0); [congruence|congruence|exact V].
Qed.
