(* Consequences of Proof/AxHeapSafe.v stated for PROGRAMS (C09, C10): what holds in every
   configuration reachable by the instrumented machine of a linearity-checked program, the link
   between the fuelled runner `hexec` and reachability, and an executable count of the blocks in
   use (to instantiate the peak hypotheses of the footprint theorems on concrete runs). *)
From Coq Require Import List ZArith NArith Bool Lia Permutation.
From SCC Require Import Base.Sexp Lang.AxSyn Sem.AxSem Model.Linearize Model.LinCheck Sem.AxHeap.
From SCC Require Import Proof.LinBasics Proof.LinTyping Proof.AxHeapErase Proof.AxHeapTyping.
From SCC Require Proof.LinearizeProof.
From SCC Require Import Model.Heap Proof.HeapMore Proof.HeapTrace Proof.HeapRep Proof.HeapRepSubst Proof.HeapTracePerm
  Proof.AxHeapSafe.
Import ListNotations.
Open Scope list_scope.

Lemma hsteps_front p c ops he' s' pr : forall tr c',
  hstep p (hc_env c) (hc_heap c) (hc_stmt c) = HStep ops he' s' pr ->
  hsteps p (mkhc he' (hrun ops (hc_heap c)) s') tr c' -> hsteps p c (ops ++ tr) c'.
Proof.
  intros tr c' HS H. remember (mkhc he' (hrun ops (hc_heap c)) s') as c0 eqn:E0.
  induction H as [c1|c1 tr c2 ops2 he2 s2 pr2 H IH HS2]; subst.
  - rewrite app_nil_r. rewrite <- (app_nil_l ops). eapply hsteps_step; [apply hsteps_refl|exact HS].
  - rewrite app_assoc. eapply hsteps_step; [exact (IH eq_refl)|exact HS2].
Qed.

Lemma hexec_hsteps p : forall fuel c out acc,
  exists tr, snd (hexec fuel p c out acc) = rev acc ++ tr /\ hsteps p c tr (snd (fst (hexec fuel p c out acc))).
Proof.
  induction fuel as [|fuel IH]; intros c out acc; cbn [hexec].
  - exists []. cbn [fst snd]. rewrite rev_append_rev, !app_nil_r. split; [reflexivity|apply hsteps_refl].
  - destruct (hstep p (hc_env c) (hc_heap c) (hc_stmt c)) as [ops he' s' pr|o] eqn:HS.
    + destruct (IH (mkhc he' (hrun ops (hc_heap c)) s') (push_print pr out) (rev_append ops acc)) as (tr & E & H).
      exists (ops ++ tr). split.
      * rewrite E, rev_append_rev, rev_app_distr, rev_involutive, <- app_assoc. reflexivity.
      * eapply hsteps_front; eauto.
    + exists []. cbn [fst snd]. rewrite rev_append_rev, !app_nil_r. split; [reflexivity|apply hsteps_refl].
Qed.

Theorem hrun_prog_reach fuel base p args o c tr :
  hrun_prog fuel base p args = Some (o, c, tr) -> hreach base p args tr c.
Proof.
  unfold hrun_prog, hreach. destruct (pdefs p) as [|d ds] eqn:PD; [discriminate|].
  destruct (entry_env d args) as [e|] eqn:EN; [|discriminate]. intros H. inversion H as [H1]. clear H.
  destruct (hexec_hsteps p fuel (hinit base d e) [] []) as (tr1 & E & HS). rewrite H1 in E, HS. cbn [fst snd rev app] in E, HS.
  subst tr1. exists d, ds, e. auto.
Qed.

Lemma reach_nil mm b : ~ reach mm [] b.
Proof. induction 1 as [b Hb _|x b _ IH _ _]; auto. Qed.

(* C09 on programs *)
Section Programs.
Variables (base : Z) (p : prog) (args : list Z).
Hypotheses (LP : lin_check_prog p = true) (EE : entry_ext p = true) (Hb : (0 < base)%Z).

(* the invariant, with the roots = the pointers of the environment = the non-ext variables of the
   typing context of the statement about to run *)
Theorem prog_inv tr c : hreach base p args tr c ->
  (exists hl fl cl, InvA base (hc_heap c) (roots (hc_env c)) hl fl cl) /\
  (exists cx, lin_wt (sigs_of p) cx (hc_stmt c) /\ ctx_of (hc_env c) = cx /\
              forall en, In en (hc_env c) -> chi_of (h_val en) = AxSyn.Ext -> h_ptr en = 0%Z).
Proof.
  intros H. destruct (program_heap_safe base p args tr c LP EE Hb H) as (_ & _ & _ & IA & (lk & _ & ER) & (cx & W & E)).
  split; [exact IA|]. exists cx. split; [exact W|]. split; [eapply env_wt_ctx_of; eauto|].
  eapply reps_ptrs_ok. exact ER.
Qed.

(* every operation the program performs meets its precondition, in the state in which it is performed *)
Theorem prog_trace_wf tr c : hreach base p args tr c ->
  pre_trace (init base) [] tr /\ hc_heap c = fst (grun tr (init base, [])) /\
  Permutation (snd (grun tr (init base, []))) (roots (hc_env c)).
Proof. intros H. destruct (program_heap_safe base p args tr c LP EE Hb H) as (A & B & C & _). auto. Qed.

(* no use after release: whatever a variable reaches is a counted block, on neither free list *)
Theorem prog_no_use_after_release tr c b : hreach base p args tr c ->
  reach (m (hc_heap c)) (roots (hc_env c)) b ->
  exists hl fl cl, InvA base (hc_heap c) (roots (hc_env c)) hl fl cl /\ In b cl /\ ~ In b hl /\ ~ In b fl.
Proof.
  intros H Hr. destruct (prog_inv tr c H) as ((hl & fl & cl & IA) & _). exists hl, fl, cl. split; [exact IA|].
  eapply no_use_after_release; eauto. apply IA.
Qed.

(* no double release: a pointer held by a variable is on no free list; dropping or consuming the last
   reference puts it on exactly one *)
Theorem prog_no_double_release tr c en : hreach base p args tr c -> In en (hc_env c) -> h_ptr en <> 0%Z ->
  exists hl fl cl, InvA base (hc_heap c) (roots (hc_env c)) hl fl cl /\ ~ In (h_ptr en) (hl ++ fl) /\ In (h_ptr en) cl.
Proof.
  intros H Hin Hp. destruct (prog_inv tr c H) as ((hl & fl & cl & IA) & _). exists hl, fl, cl. split; [exact IA|].
  assert (HR : In (h_ptr en) (roots (hc_env c))) by (apply in_nz; split; [apply in_map; exact Hin|exact Hp]).
  split; [apply (no_double_release _ _ _ _ _ _ (proj1 IA) Hp HR)|eapply root_counted; eauto; apply IA].
Qed.

(* no leak: every block below the frontier is reusable, deferred, or counted and then reachable from
   a variable or waiting beneath a deferred block *)
Theorem prog_classification tr c a : hreach base p args tr c -> blk base a -> (a < frontier (hc_heap c))%Z ->
  exists hl fl cl, InvA base (hc_heap c) (roots (hc_env c)) hl fl cl /\
   ((In a hl /\ ~ In a fl /\ ~ In a cl) \/ (In a fl /\ ~ In a hl /\ ~ In a cl) \/
    (In a cl /\ ~ In a hl /\ ~ In a fl /\
     (reach (m (hc_heap c)) (roots (hc_env c)) a \/ reach (m (hc_heap c)) (deferred_slots (hc_heap c) fl) a))).
Proof.
  intros H Ha Hlt. destruct (prog_inv tr c H) as ((hl & fl & cl & IA) & _). exists hl, fl, cl. split; [exact IA|].
  eapply classify_total_exclusive; eauto.
Qed.
(* in particular when no variable holds a pointer (as at `exit` after the final clean-up): every
   block is free, deferred, or waits beneath a deferred block *)
Corollary prog_exit_no_leak tr c a : hreach base p args tr c -> roots (hc_env c) = [] ->
  blk base a -> (a < frontier (hc_heap c))%Z ->
  exists hl fl cl, InvA base (hc_heap c) [] hl fl cl /\
    (In a hl \/ In a fl \/ (In a cl /\ reach (m (hc_heap c)) (deferred_slots (hc_heap c) fl) a)).
Proof.
  intros H HR Ha Hlt. destruct (prog_classification tr c a H Ha Hlt) as (hl & fl & cl & IA & Hc). rewrite HR in *.
  exists hl, fl, cl. split; [exact IA|]. destruct Hc as [(A & _)|[(A & _)|(A & _ & _ & [Hr|Hr])]]; auto.
  exfalso. eapply reach_nil; eauto.
Qed.

(* C10 on programs *)
Theorem prog_footprint_bound tr c pk : hreach base p args tr c -> peak_bound base tr pk ->
  ((frontier (hc_heap c) - base) / BLOCK <= Z.of_nat pk + 1)%Z.
Proof.
  intros H HB. destruct (prog_trace_wf tr c H) as (P & E & _). rewrite E. now apply footprint_bound.
Qed.
Theorem prog_footprint_exact tr c pk : hreach base p args tr c -> peak_bound base tr pk -> peak_attained base tr pk ->
  frontier (hc_heap c) = (base + (Z.of_nat pk + 1) * BLOCK)%Z.
Proof.
  intros H HB HA. destruct (prog_trace_wf tr c H) as (P & E & _). rewrite E. now apply footprint_exact.
Qed.
End Programs.

(* two runs (any arguments, any numbers of iterations) with the same peak end with the same frontier *)
Theorem prog_loop_space_constant base p args1 args2 tr1 c1 tr2 c2 pk :
  lin_check_prog p = true -> entry_ext p = true -> (0 < base)%Z ->
  hreach base p args1 tr1 c1 -> hreach base p args2 tr2 c2 ->
  peak_bound base tr1 pk -> peak_attained base tr1 pk -> peak_bound base tr2 pk -> peak_attained base tr2 pk ->
  frontier (hc_heap c1) = frontier (hc_heap c2).
Proof.
  intros LP EE Hb H1 H2 B1 A1 B2 A2.
  rewrite (prog_footprint_exact base p args1 LP EE Hb tr1 c1 pk), (prog_footprint_exact base p args2 LP EE Hb tr2 c2 pk); auto.
Qed.

(* steady state of a loop: from a reachable configuration whose frontier stands at pk + 1 blocks, any
   continuation (any number of further iterations) during which at most pk blocks are in use leaves
   the frontier where it is *)
Theorem prog_frontier_stable base p args tr c tr' c' (pk : nat) :
  lin_check_prog p = true -> entry_ext p = true -> (0 < base)%Z ->
  hreach base p args tr c -> hsteps p c tr' c' ->
  (forall sr n, In sr (states tr' (hc_heap c, roots (hc_env c))) -> in_use base sr n -> (n <= pk)%nat) ->
  (frontier (hc_heap c) - base = (Z.of_nat pk + 1) * BLOCK)%Z ->
  frontier (hc_heap c') = frontier (hc_heap c).
Proof.
  intros LP EE Hb H HS HB HF.
  destruct (program_heap_safe base p args tr c LP EE Hb H) as (_ & _ & _ & (hl & fl & cl & IA) & (lk & K & ER) & W).
  assert (HI : HInv base (hc_env c) (hc_heap c)) by (exists lk; eauto 10).
  destruct (hsteps_safe base p c tr' c' LP W HI HS) as (P & E & _). rewrite E.
  eapply frontier_stable_after_peak; eauto.
Qed.
(* ... and in general the frontier never exceeds max(where it stood, peak in use + 1) *)
Theorem prog_footprint_from base p args tr c tr' c' (pk : nat) :
  lin_check_prog p = true -> entry_ext p = true -> (0 < base)%Z ->
  hreach base p args tr c -> hsteps p c tr' c' ->
  (forall sr n, In sr (states tr' (hc_heap c, roots (hc_env c))) -> in_use base sr n -> (n <= pk)%nat) ->
  (frontier (hc_heap c) - base <= (Z.of_nat pk + 1) * BLOCK)%Z ->
  (frontier (hc_heap c') - base <= (Z.of_nat pk + 1) * BLOCK)%Z.
Proof.
  intros LP EE Hb H HS HB HF.
  destruct (program_heap_safe base p args tr c LP EE Hb H) as (_ & _ & _ & (hl & fl & cl & IA) & (lk & K & ER) & W).
  assert (HI : HInv base (hc_env c) (hc_heap c)) by (exists lk; eauto 10).
  destruct (hsteps_safe base p c tr' c' LP W HI HS) as (P & E & _). rewrite E.
  eapply footprint_gen; eauto.
Qed.

(* everything the linearization pass produces from a checked named program *)
Theorem compiled_program_heap_safe base p args tr c :
  prog_ok p = true -> entry_ext (linearize p) = true -> (0 < base)%Z ->
  hreach base (linearize p) args tr c ->
  pre_trace (init base) [] tr /\
  (exists hl fl cl, InvA base (hc_heap c) (roots (hc_env c)) hl fl cl).
Proof.
  intros OK EE Hb H.
  destruct (program_heap_safe base (linearize p) args tr c (LinearizeProof.linearize_exact p OK) EE Hb H) as (A & _ & _ & B & _). auto.
Qed.

Fixpoint hl_walk (fuel : nat) (mm : mem) (a : Z) : option (list Z) :=
  if (a =? 0)%Z then Some []
  else match fuel with
       | O => None
       | S f => match hl_walk f mm (hdr (mm a)) with Some l => Some (a :: l) | None => None end
       end.
Lemma hl_walk_chain mm : forall fuel a l, hl_walk fuel mm a = Some l -> chain mm 0 a l.
Proof.
  induction fuel as [|f IH]; intros a l H; cbn [hl_walk] in H; destruct (Z.eqb_spec a 0) as [->|Ha].
  - inversion H. constructor.
  - discriminate.
  - inversion H. constructor.
  - destruct (hl_walk f mm (hdr (mm a))) as [l'|] eqn:E; [|discriminate]. inversion H; subst. constructor; auto.
Qed.
Definition in_use_n (base : Z) (fuel : nat) (s : st) : option nat :=
  match hl_walk fuel (m s) (heap s) with
  | Some l => Some (Z.to_nat ((frontier s - base) / BLOCK) - length l)%nat
  | None => None
  end.
Lemma in_use_n_spec base fuel s R n k : in_use base (s, R) n -> in_use_n base fuel s = Some k -> n = k.
Proof.
  intros (hl & fl & cl & IA & ->) H. unfold in_use_n in H. cbn [fst snd] in *.
  destruct (hl_walk fuel (m s) (heap s)) as [l|] eqn:E; [|discriminate]. inversion H; subst. clear H.
  apply hl_walk_chain in E. assert (l = hl) by (eapply chain_unique; [exact E|apply (i_hl _ _ _ _ _ (proj1 IA))]). subst l.
  pose proof (frontier_blocks _ _ _ _ _ _ IA) as F. rewrite F, Z.div_mul by (unfold BLOCK; lia). lia.
Qed.

(* the peak hypotheses from a computation over the states of the trace *)
Fixpoint peak_n (base : Z) (fuel : nat) (ops : list op) (s : st) : option nat :=
  match in_use_n base fuel s with
  | None => None
  | Some k => match ops with
              | [] => Some k
              | o :: r => match peak_n base fuel r (step s o) with Some k' => Some (Nat.max k k') | None => None end
              end
  end.
Lemma peak_n_bound base fuel : forall ops s R pk, peak_n base fuel ops s = Some pk ->
  forall sr n, In sr (states ops (s, R)) -> in_use base sr n -> (n <= pk)%nat.
Proof.
  induction ops as [|o ops IH]; intros s R pk H sr n Hin HU; cbn [peak_n] in H;
    destruct (in_use_n base fuel s) as [k|] eqn:E; try discriminate.
  - inversion H; subst. destruct Hin as [<-|[]]. rewrite (in_use_n_spec _ _ _ _ _ _ HU E). lia.
  - destruct (peak_n base fuel ops (step s o)) as [k'|] eqn:E'; [|discriminate]. inversion H; subst.
    cbn [states] in Hin. destruct Hin as [<-|Hin].
    + rewrite (in_use_n_spec _ _ _ _ _ _ HU E). lia.
    + unfold gstep in Hin. cbn [fst snd] in Hin. pose proof (IH _ _ _ E' sr n Hin HU). lia.
Qed.
Lemma peak_n_attained base fuel : forall ops s R hl fl cl pk,
  InvA base s R hl fl cl -> pre_trace s R ops -> peak_n base fuel ops s = Some pk ->
  exists sr, In sr (states ops (s, R)) /\ in_use base sr pk.
Proof.
  induction ops as [|o ops IH]; intros s R hl fl cl pk IA HP H; cbn [peak_n] in H;
    destruct (in_use_n base fuel s) as [k|] eqn:E; try discriminate.
  - inversion H; subst. exists (s, R). split; [now left|].
    assert (HU : in_use base (s, R) (length cl + length fl)) by (exists hl, fl, cl; auto).
    rewrite <- (in_use_n_spec _ _ _ _ _ _ HU E). exact HU.
  - destruct (peak_n base fuel ops (step s o)) as [k'|] eqn:E'; [|discriminate]. inversion H; subst. clear H.
    destruct HP as [HP1 HP2]. destruct (heap_inv_step base s R hl fl cl o IA HP1) as (hl1 & fl1 & cl1 & I1 & _).
    destruct (Nat.max_spec k k') as [[_ ->]|[_ ->]].
    + destruct (IH _ _ _ _ _ _ I1 HP2 E') as (sr & Hin & HU). exists sr. split; [cbn [states]; right; exact Hin|exact HU].
    + exists (s, R). split; [now left|].
      assert (HU : in_use base (s, R) (length cl + length fl)) by (exists hl, fl, cl; auto).
      rewrite <- (in_use_n_spec _ _ _ _ _ _ HU E). exact HU.
Qed.
Theorem peak_n_peak base fuel ops pk :
  (0 < base)%Z -> pre_trace (init base) [] ops -> peak_n base fuel ops (init base) = Some pk ->
  peak_bound base ops pk /\ peak_attained base ops pk.
Proof.
  intros Hb HP H. split.
  - intros sr n. eapply peak_n_bound; eauto.
  - eapply peak_n_attained; eauto. now apply init_invA.
Qed.
