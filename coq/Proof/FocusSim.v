(* C03, semantic preservation: target runs, kind clashes, and the simulation of the value
   interactions (khead, select, interact_val, interact_mu, cut_with_k).

   KIND CLASH.  The machine of Sem/CoreSem.v is untyped but two of its decisions are type directed
   (is_codata of the annotation of a mu-abstraction / of a cut).  Focusing turns the by-value
   return continuation [KRet m] into a mu~-closure and the machine gives a mu~-closure priority
   over forcing a by-name thunk; so a by-name producer (PThunk / PDelay / a mu at a codata cut)
   that meets a [KRet] is treated differently before and after focusing.  In a well-typed program
   this never happens (KRet comes from a mu of a NON-codata type, the by-name producers have codata
   types).  [clash_config] (Model/FocusGuard.v) recognises exactly these source configurations; the
   simulation assumes the run meets none. *)
From Coq Require Import List ZArith NArith String Bool Lia.
From SCC Require Import Proof.CoreInd.
From SCC Require Import Base.Sexp Lang.CoreSyn Sem.AxSem Sem.CoreSem Model.Backend Model.Uniquify Model.Focus
     Model.FocusCheck Proof.FocusKont Proof.FocusRel Proof.FocusMono.
From SCC Require Import Model.FocusGuard.
Import ListNotations.
Open Scope list_scope.
Open Scope N_scope.

Lemma fs2c_xcase : forall c cls ty, fs2c_term (FsXCase c cls ty) = CXCase c (map fs2c_clause cls) ty.
Proof. intros. reflexivity. Qed.

Lemma cident_eqb_refl' : forall x : cident, cident_eqb x x = true.
Proof. intros [a i]. unfold cident_eqb; simpl. rewrite String.eqb_refl, N.eqb_refl. reflexivity. Qed.

Section Sim.
Variables (ps qt : cprog) (M0 : N).
Hypothesis Hcod : forall ty, is_codata qt ty = is_codata ps ty.

Notation V := (V ps M0).
Notation Vs := (Vs ps M0).
Notation env_rel := (env_rel ps M0).
Notation mk_rel := (mk_rel ps M0).
Notation kv_rel := (kv_rel ps M0).
Notation crel := (crel ps M0).

Lemma mk_rel_kmono_gen :
  (forall c m k e', mk_rel c m k e' -> kmono k) /\ (forall c d f kv e', kv_rel c d f kv e' -> kvmono kv).
Proof.
  split.
  - apply (mk_rel_mind ps M0 (fun _ _ k _ => kmono k) (fun _ _ _ kv _ => kvmono kv)); intros;
      auto using kmono_opR, kmono_opL, kmono_cutopR, kmono_cutopL, kmono_if2, kmono_if1, kmono_print, kmono_exit,
        kvmono_cons, kmono_many, kvmono_xtorP, kvmono_xtorK, kvmono_cutP, kvmono_cutK, kvmono_call.
  - apply (kv_rel_mind ps M0 (fun _ _ k _ => kmono k) (fun _ _ _ kv _ => kvmono kv)); intros;
      auto using kmono_opR, kmono_opL, kmono_cutopR, kmono_cutopL, kmono_if2, kmono_if1, kmono_print, kmono_exit,
        kvmono_cons, kmono_many, kvmono_xtorP, kvmono_xtorK, kvmono_cutP, kvmono_cutK, kvmono_call.
Qed.
Lemma mk_rel_kmono : forall c m k e', mk_rel c m k e' -> kmono k.
Proof. exact (proj1 mk_rel_kmono_gen). Qed.
Lemma kv_rel_kvmono : forall c d f kv e', kv_rel c d f kv e' -> kvmono kv.
Proof. exact (proj2 mk_rel_kmono_gen). Qed.

Definition tsteps (c' : config) (pre : prints) (c2' : config) : Prop :=
  exists n, forall fuel out, crun (n + fuel) qt c' out = crun fuel qt c2' (pre ++ out).
Definition thalt (c' : config) (o : outcome) : Prop :=
  exists n, forall fuel out, crun (S n + fuel) qt c' out = finish out o.

Lemma tsteps_refl : forall c, tsteps c [] c.
Proof. intros c. exists 0%nat. intros; reflexivity. Qed.
Lemma tsteps_next : forall c c1 pre c2, cstep qt c = SNext c1 -> tsteps c1 pre c2 -> tsteps c pre c2.
Proof.
  intros c c1 pre c2 H (n & Hn). exists (S n). intros fuel out.
  change (S n + fuel)%nat with (S (n + fuel)). simpl. rewrite H. apply Hn.
Qed.
Lemma tsteps_print : forall c nl z c1, cstep qt c = SPrint nl z c1 -> tsteps c [(nl, z)] c1.
Proof. intros c nl z c1 H. exists 1%nat. intros fuel out. simpl. rewrite H. reflexivity. Qed.
Lemma tsteps_trans : forall a p1 b p2 c, tsteps a p1 b -> tsteps b p2 c -> tsteps a (p2 ++ p1) c.
Proof.
  intros a p1 b p2 c (n1 & H1) (n2 & H2). exists (n1 + n2)%nat. intros fuel out.
  rewrite <- Nat.add_assoc, H1, H2, app_assoc. reflexivity.
Qed.
Lemma tsteps_trans0 : forall a b p2 c, tsteps a [] b -> tsteps b p2 c -> tsteps a p2 c.
Proof. intros a b p2 c H1 H2. pose proof (tsteps_trans _ _ _ _ _ H1 H2) as H. rewrite app_nil_r in H. exact H. Qed.
Lemma thalt_now : forall c o, cstep qt c = SHalt o -> thalt c o.
Proof. intros c o H. exists 0%nat. intros fuel out. simpl. rewrite H. reflexivity. Qed.
Lemma thalt_steps : forall a b o, tsteps a [] b -> thalt b o -> thalt a o.
Proof.
  intros a b o (n1 & H1) (n2 & H2). exists (n1 + n2)%nat. intros fuel out.
  replace (S (n1 + n2) + fuel)%nat with (n1 + (S n2 + fuel))%nat by lia. rewrite H1. simpl app. apply H2.
Qed.

(* what a source transition result requires of the target configuration *)
Definition sres_sim (r : sres) (c' : config) : Prop :=
  match r with
  | SNext c2 => exists c2', tsteps c' [] c2' /\ crel c2 c2'
  | SPrint nl z c2 => exists c2', tsteps c' [(nl, z)] c2' /\ crel c2 c2'
  | SHalt (OStuck _) => True
  | SHalt o => thalt c' o
  end.
(* ... and of a target transition result *)
Definition sres_rel (r r' : sres) : Prop :=
  match r with
  | SNext c2 => exists c2', r' = SNext c2' /\ crel c2 c2'
  | SPrint nl z c2 => exists c2', r' = SPrint nl z c2' /\ crel c2 c2'
  | SHalt (OStuck _) => True
  | SHalt o => r' = SHalt o
  end.
Lemma sres_rel_sim : forall r r' c' c1', sres_rel r r' -> tsteps c' [] c1' -> cstep qt c1' = r' -> sres_sim r c'.
Proof.
  intros r r' c' c1' R T S. destruct r as [c2|nl z c2|o]; simpl in *.
  - destruct R as (c2' & -> & CR). exists c2'. split; [|exact CR].
    eapply tsteps_trans0; [exact T|]. eapply tsteps_next; [exact S|apply tsteps_refl].
  - destruct R as (c2' & -> & CR). exists c2'. split; [|exact CR].
    eapply tsteps_trans0; [exact T|]. apply tsteps_print; exact S.
  - destruct o; auto; subst r'; (eapply thalt_steps; [exact T|]; apply thalt_now; exact S).
Qed.
Lemma sres_sim_steps : forall r a b, tsteps a [] b -> sres_sim r b -> sres_sim r a.
Proof.
  intros r a b T S. destruct r as [c2|nl z c2|o]; simpl in *.
  - destruct S as (c2' & T2 & CR). exists c2'. split; [eapply tsteps_trans0; eauto | exact CR].
  - destruct S as (c2' & T2 & CR). exists c2'. split; [eapply tsteps_trans0; eauto | exact CR].
  - destruct o; auto; eapply thalt_steps; eauto.
Qed.

Lemma V_BK_inv : forall kv v', V (BK kv) v' -> exists kv', v' = BK kv'.
Proof. intros kv v' H. apply V_kind in H. destruct v' as [p|k]; [discriminate | eauto]. Qed.
Lemma V_BP_inv : forall pv v', V (BP pv) v' -> exists pv', v' = BP pv'.
Proof. intros pv v' H. apply V_kind in H. destruct v' as [p|k]; [eauto | discriminate]. Qed.

Lemma khead_sim : forall q e q' e' mc m2 kv,
  focus_term CCns q mc = Ok (q', m2) -> M0 <= mc -> ids_le_term M0 q = true -> env_rel e e' ->
  khead q e = inl kv -> exists kv', khead (fs2c_term q') e' = inl kv' /\ V (BK kv) (BK kv').
Proof.
  intros q e q' e' mc m2 kv F L HI E H.
  destruct q as [c v t|n|a o b|c v s t|c x args t|c cls t]; simpl in H; try discriminate.
  - rewrite focus_term_xvar in F. okinv F. simpl in HI. apply N.leb_le in HI.
    destruct (clookup e v) as [[pv|kv0]|] eqn:L1; try discriminate. okinv H.
    destruct (env_lookup_some _ _ _ _ _ _ E HI L1) as (v' & L2 & HV).
    destruct (V_BK_inv _ _ HV) as (kv' & ->). exists kv'. simpl. rewrite L2. split; [reflexivity | exact HV].
  - rewrite focus_term_mu in F. rinv F. okinv F. okinv H. simpl in HI. apply andb_true_iff in HI. destruct HI as [_ HI].
    eexists. simpl. split; [reflexivity|]. eapply V_mut; eauto.
  - rewrite focus_term_xcase in F. rinv F. okinv F. okinv H. simpl in HI.
    eexists. rewrite fs2c_xcase. simpl. split; [reflexivity|]. eapply V_case; eauto.
Qed.

Lemma select_sim : forall cls cls' mc m2 ce ce' tag args args',
  maprs focus_clause cls mc = Ok (cls', m2) -> M0 <= mc -> forallb (ids_le_clause M0) cls = true ->
  env_rel ce ce' -> Vs args args' ->
  sres_rel (select cls ce tag args) (select (map fs2c_clause cls') ce' tag args').
Proof.
  induction cls as [|cl cls IH]; intros cls' mc m2 ce ce' tag args args' F L HI E HV.
  - simpl in F. okinv F. exact I.
  - simpl in F. rinv F. rinv F. okinv F. simpl in HI. apply andb_true_iff in HI. destruct HI as [I1 I2].
    destruct cl as [c x ctx body]. rewrite focus_clause_eq in E0. rinv E0. okinv E0.
    unfold select, cfind_clause. simpl.
    destruct (cident_eqb x tag) eqn:Q.
    + simpl. destruct (cbind (cvars ctx) args ce) as [e1|] eqn:B; [|exact I].
      destruct (cbind_rel _ _ _ _ _ _ _ _ HV E B) as (e1' & B' & R1). rewrite B'.
      eexists. split; [reflexivity|]. simpl in I1. apply andb_true_iff in I1. destruct I1 as [_ I1].
      eapply CR_run; eauto.
    + apply (IH _ _ _ ce ce' tag args args' E1); auto.
      apply focus_stmt_mono in E2. lia.
Qed.

(* resuming a continuation that focusing turned into code *)
Lemma crel_resume : forall m k b c mc sk m2 e' v v',
  k b mc = Ok (sk, m2) -> c < cid_id (cbvar b) <= mc -> M0 <= c -> mk_rel c m k e' ->
  V v v' -> bkind v = cbchi b ->
  crel (App m v) (Run (fs2c_stmt sk) ((cbvar b, v') :: e')).
Proof.
  intros m k b c mc sk m2 e' v v' K B L R HV HB.
  eapply CR_app with (c := c) (b := b) (mc := mc); eauto; try lia.
  - simpl. rewrite cident_eqb_refl'. reflexivity.
  - apply mk_rel_push; auto; lia.
Qed.

(* a producer value meets a consumer value *)
Lemma interact_val_sim : forall pv pv' kv kv',
  V (BP pv) (BP pv') -> V (BK kv) (BK kv') -> clash_val pv kv = false ->
  sres_rel (interact_val pv kv) (interact_val pv' kv').
Proof.
  intros pv pv' kv kv' HP HK CL.
  inversion HK; subst.
  - (* KMuT *) simpl. eexists. split; [reflexivity|]. eapply CR_run; eauto. apply ER_both; assumption.
  - (* KCase *) inversion HP; subst; simpl; try exact I.
    + eapply select_sim; eauto.
    + eexists. split; [reflexivity|]. eapply CR_run; eauto. apply ER_both; assumption.
    + eexists. split; [reflexivity|]. eapply crel_resume; eauto; simpl; congruence.
  - (* KDtor *) inversion HP; subst; simpl; try exact I.
    + eapply select_sim; eauto.
    + eexists. split; [reflexivity|]. eapply CR_run; eauto. apply ER_both; assumption.
    + eexists. split; [reflexivity|]. eapply crel_resume; eauto; simpl; congruence.
  - (* KRet *) inversion HP; subst; simpl in CL; try discriminate; simpl;
      (eexists; split; [reflexivity|]; eapply crel_resume; eauto; simpl; congruence).
Qed.

(* the syntactic producer mu a.s meets a consumer value *)
Lemma interact_mu_sim : forall cd a s e s' e' mc m2 kv kv',
  focus_stmt s mc = Ok (s', m2) -> M0 <= mc -> ids_le_stmt M0 s = true -> env_rel e e' ->
  V (BK kv) (BK kv') -> cd && is_kret kv = false ->
  sres_rel (interact_mu cd a s e kv) (interact_mu cd a (fs2c_stmt s') e' kv').
Proof.
  intros cd a s e s' e' mc m2 kv kv' F L HI E HK CL.
  assert (G : forall kv kv', V (BK kv) (BK kv') ->
              sres_rel (SNext (Run s ((a, BK kv) :: e))) (SNext (Run (fs2c_stmt s') ((a, BK kv') :: e')))).
  { intros k1 k2 H. eexists. split; [reflexivity|]. eapply CR_run; eauto. apply ER_both; assumption. }
  destruct cd.
  - inversion HK; subst; simpl in CL; try discriminate; simpl; try (apply G; assumption).
    eexists. split; [reflexivity|]. eapply CR_run; eauto. apply ER_both; [|assumption]. eapply V_thunk; eauto.
  - inversion HK; subst; simpl; apply G; assumption.
Qed.

(* producer head against a consumer value *)
Lemma cut_with_k_sim : forall cd p e p' e' mc m2 kv kv',
  focus_term CPrd p mc = Ok (p', m2) -> M0 <= mc -> ids_le_term M0 p = true -> env_rel e e' ->
  V (BK kv) (BK kv') -> clash_cut cd p e kv = false ->
  sres_rel (cut_with_k cd p e kv) (cut_with_k cd (fs2c_term p') e' kv').
Proof.
  intros cd p e p' e' mc m2 kv kv' F L HI E HK CL.
  destruct p as [c v t|n|a o b|c v s t|c x args t|c cls t]; try exact I.
  - rewrite focus_term_xvar in F. okinv F. simpl in HI. apply N.leb_le in HI. simpl in *.
    destruct (clookup e v) as [[pv|kv0]|] eqn:L1; try exact I.
    destruct (env_lookup_some _ _ _ _ _ _ E HI L1) as (v' & L2 & HV).
    destruct (V_BP_inv _ _ HV) as (pv' & ->). rewrite L2. apply interact_val_sim; assumption.
  - simpl in F. okinv F. simpl. apply interact_val_sim; [constructor | assumption | destruct kv; reflexivity].
  - rewrite focus_term_mu in F. rinv F. okinv F. simpl in HI. apply andb_true_iff in HI. destruct HI as [_ HI].
    simpl in *. eapply interact_mu_sim; eauto.
  - rewrite focus_term_xcase in F. rinv F. okinv F. rewrite fs2c_xcase. simpl in *.
    apply interact_val_sim; [eapply V_cocase; eauto | assumption | destruct kv; reflexivity].
Qed.

End Sim.
