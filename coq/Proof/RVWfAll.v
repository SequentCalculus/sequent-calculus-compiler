(* C14, RISC-V: EVERY instruction the code generator emits is well-formed, for every program inside the boolean guards
   of Sem/WfGuard64.v: [rv_compile_asm_wf] (Sem/RVWf.asm_wf cs = None) and [rv_compile_code_small].
   The body predicate is Sem/RVWf.instr_wf (registers x0..x31; ADDI / JALR / LW / SW 12-bit signed immediate; LI any
   64-bit value); a lemma `W (method ...)` for each method of rv_backend; the generic theorem
   Proof/CodegenForallLinP.v with the bounds 2048 (copies of one variable: `ADDI X1, X1, n`; from the capacity, tfp_cap)
   and 2^61 (xtors of a type: the offset 4k of the table dispatch is an ADDI immediate or, since the repair, an `LI`; a guard); the label theorems of Proof/LabelThms.v.  The back end has no spill slots and no routine
   wrapper in the instruction list; the offsets that occur are the field offsets 16..72 and 0. *)
From Coq Require Import List ZArith NArith String Ascii Bool Lia.
From SCC Require Import Base.Sexp Lang.AxSyn Lang.AxSize Model.ParMoves Model.Backend Model.Linearize Model.LinCheck Model.RV
  Model.SizeWf Sem.RVSem Sem.RVWf Sem.LabelGuard Sem.WfGuard Sem.WfGuard64 Generated.Constants
  Proof.LinBasics Proof.SubstGraph Proof.LabelStrings Proof.LabelGen Proof.LabelsRV Proof.LabelThms
  Proof.CodegenForallLin Proof.CodegenForallLinP Proof.RVSel Proof.RVSimAddr Proof.SizeCodegenWf Proof.SizeRV Proof.SubstBackends.
From SCC Require Proof.X86WfAll Proof.X86WfCor.
Import ListNotations.
Local Open Scope string_scope.
Local Open Scope list_scope.

Definition W (l : list rcode) : Prop := Forall (fun c => instr_wf c = true) l.
Lemma W_nil : W [].
Proof. constructor. Qed.
Lemma W_app a b : W a -> W b -> W (a ++ b).
Proof. intros A C. apply Forall_app. split; assumption. Qed.
Lemma W_forallb l : forallb instr_wf l = true -> W l.
Proof. intros H. apply Forall_forall. rewrite forallb_forall in H. exact H. Qed.
Lemma W_In l : W l -> forall c, In c l -> instr_wf c = true.
Proof. intros H. unfold W in H. rewrite Forall_forall in H. exact H. Qed.

Definition reg_enc (r : reg) : Prop := reg_ok r = true.

Lemma field_offset_ok n o : N.leb o FIELDS_PER_BLOCK = true -> simm12 (field_offset n o) = true.
Proof.
  intros H. apply N.leb_le in H. change FIELDS_PER_BLOCK with 3%N in H. unfold simm12, field_offset, address. change RVC.address1 with 8%Z.
  assert (0 <= Z.of_N (tnum_n n) <= 1)%Z by (destruct n; cbn; lia).
  apply andb_true_iff; split; apply Z.leb_le; lia.
Qed.
Lemma simm12_small i : (-2048 <= i <= 2047)%Z -> simm12 i = true.
Proof. intros H. unfold simm12. apply andb_true_iff; split; apply Z.leb_le; lia. Qed.

Ltac wf1 :=
  cbn [instr_wf]; unfold reg_enc in *;
  rewrite ?field_offset_ok by assumption;
  repeat match goal with H : ?x = true |- context [?x] => rewrite H end;
  try reflexivity; repeat (apply andb_true_iff; split); try reflexivity.
Ltac wf :=
  unfold W;
  repeat match goal with
  | |- Forall _ (_ ++ _) => apply Forall_app; split
  | |- Forall _ (_ :: _) => constructor
  | |- Forall _ [] => constructor
  end; try wf1.

Lemma reg_ZERO : reg_enc ZERO. Proof. reflexivity. Qed.
Lemma reg_TEMP : reg_enc TEMP. Proof. reflexivity. Qed.
Lemma reg_HEAP : reg_enc HEAP. Proof. reflexivity. Qed.
Lemma reg_FREE : reg_enc FREE. Proof. reflexivity. Qed.

(* code.rs *)
Lemma W_jcc s a b l : reg_enc a -> reg_enc b -> W [jcc s a b l].
Proof. intros A Bb. destruct s; cbn [jcc]; wf. Qed.
Lemma W_arith o t a b : reg_enc t -> reg_enc a -> reg_enc b -> W (r_arith o t a b).
Proof. intros T A Bb. destruct o; cbn [r_arith]; wf. Qed.
Lemma W_jump t : reg_enc t -> W (r_jump t).
Proof. intros T. unfold r_jump. wf. Qed.
Lemma W_jump_label l : W (r_jump_label l).
Proof. unfold r_jump_label. wf. Qed.
Lemma lit_imm64 i : lit64 i = true -> imm64 i = true.
Proof. intros H. exact H. Qed.
Lemma W_load_immediate t i : reg_enc t -> lit64 i = true -> W (r_load_immediate t i).
Proof. intros T L. apply lit_imm64 in L. unfold r_load_immediate. wf. Qed.
Lemma tag_lit64 k : (k < RV_XTORS_MAX)%N -> lit64 (jump_length k) = true.
Proof. unfold RV_XTORS_MAX, lit64, jump_length. intros H. apply andb_true_iff; split; apply Z.leb_le; lia. Qed.
Lemma W_load_label t l : reg_enc t -> W (r_load_label t l).
Proof. intros T. unfold r_load_label. wf. Qed.
(* the table dispatch of invoke: every 64-bit offset (repaired code; the old code only below 512 xtors) *)
Lemma W_add_and_jump_any t i : reg_enc t -> lit64 i = true -> W (r_add_and_jump t i).
Proof.
  intros T L. apply lit_imm64 in L. pose proof reg_TEMP as RT. unfold r_add_and_jump. destruct (addi_fits i) eqn:FI.
  - change (addi_fits i) with (simm12 i) in FI. wf.
  - wf.
Qed.
Lemma W_add_and_jump t k : reg_enc t -> (k < RV_XTORS_MAX)%N -> W (r_add_and_jump t (jump_length k)).
Proof. intros T K. apply W_add_and_jump_any; [exact T|apply tag_lit64; exact K]. Qed.
Lemma W_old_add_and_jump t k : reg_enc t -> (k < RV_OLD_XTORS_MAX)%N -> W (old_r_add_and_jump t (jump_length k)).
Proof.
  intros T K. assert (F : simm12 (jump_length k) = true) by (apply simm12_small; unfold RV_OLD_XTORS_MAX, jump_length in *; lia).
  unfold old_r_add_and_jump. wf.
Qed.
Lemma W_mov t s : reg_enc t -> reg_enc s -> W (r_mov t s).
Proof. intros T S. unfold r_mov. wf. Qed.

(* memory.rs *)
Lemma W_skip cond body lc : reg_enc cond -> W body -> W (fst (skip_if_zero cond body lc)).
Proof. intros T HB. unfold skip_if_zero. cbn [fst]. apply (W_app [_]); [wf|]. apply W_app; [exact HB|wf]. Qed.
Lemma W_ite r th el lc : reg_enc r -> W th -> W el -> W (fst (if_zero_then_else r th el lc)).
Proof.
  intros R H1 H2. unfold if_zero_then_else. cbn [fst].
  apply (W_app [_]); [wf|]. apply W_app; [exact H2|]. apply (W_app [_; _]); [wf|]. apply W_app; [exact H1|wf].
Qed.
Lemma W_erase t lc : reg_enc t -> W (fst (r_erase_block t lc)).
Proof.
  intros T. unfold r_erase_block.
  pose proof (W_ite TEMP [SW FREE t NEXT_ELEMENT_OFFSET; MV FREE t] [ADDI TEMP TEMP (-1); SW TEMP t REFERENCE_COUNT_OFFSET] lc reg_TEMP) as H.
  destruct (if_zero_then_else TEMP _ _ lc) as [c lc1]. cbn [fst] in H. apply W_skip; [exact T|].
  apply (W_app [_]); [wf|]. apply H; wf.
Qed.
Lemma W_share t n lc : reg_enc t -> (n < RV_SUBST_MAX)%N -> W (fst (r_share_block_n t n lc)).
Proof.
  intros T H. assert (F : simm12 (Z.of_N n) = true) by (apply simm12_small; unfold RV_SUBST_MAX in H; lia).
  unfold r_share_block_n. apply W_skip; [exact T|wf].
Qed.
Lemma In_nseq o n : In o (nseq 0 n) -> (o < n)%N.
Proof. unfold nseq. intros H. apply in_map_iff in H as (k & <- & H). apply in_seq in H. lia. Qed.
Lemma W_erase_fields_fold r t (R : reg_enc r) (T : reg_enc t) : forall l acc,
  (forall o, In o l -> N.leb o FIELDS_PER_BLOCK = true) -> W (fst acc) ->
  W (fst (fold_left (fun (acc : list rcode * N) (offset : N) =>
               let '(c, lc) := acc in
               let '(c1, lc1) := r_erase_block t lc in
               (c ++ [LW t r (field_offset Fst offset)] ++ c1, lc1)) l acc)).
Proof.
  induction l as [|o l IH]; intros [c lc] HO H; cbn [fold_left]; [exact H|]. apply IH; [intros; apply HO; right; assumption|].
  pose proof (W_erase t lc T) as H2. destruct (r_erase_block t lc) as [c1 lc1]. cbn [fst] in *.
  assert (O : N.leb o FIELDS_PER_BLOCK = true) by (apply HO; left; reflexivity).
  apply W_app; [exact H|]. apply W_app; [wf|exact H2].
Qed.
Lemma W_erase_fields r t lc : reg_enc r -> reg_enc t -> W (fst (erase_fields r t lc)).
Proof.
  intros R T. unfold erase_fields. apply (W_erase_fields_fold r t R T); [|exact W_nil].
  intros o H. apply In_nseq in H. apply N.leb_le. lia.
Qed.
Lemma fpb_ok : N.leb FIELDS_PER_BLOCK FIELDS_PER_BLOCK = true. Proof. reflexivity. Qed.
Lemma W_acquire t t2 lc : reg_enc t -> reg_enc t2 -> W (fst (acquire_block t t2 lc)).
Proof.
  intros T T2. unfold acquire_block.
  pose proof (W_erase_fields HEAP t2 lc reg_HEAP T2) as H1. destruct (erase_fields HEAP t2 lc) as [ef lc1]. cbn [fst] in H1.
  pose proof fpb_ok as FO.
  pose proof (W_ite FREE [ADDI FREE HEAP (field_offset Fst FIELDS_PER_BLOCK)]
                ([SW ZERO HEAP NEXT_ELEMENT_OFFSET] ++ ef) lc1 reg_FREE) as H2.
  destruct (if_zero_then_else FREE _ _ lc1) as [inner lc2]. cbn [fst] in H2.
  assert (H2' : W inner).
  { apply H2; [apply W_forallb; reflexivity|apply (W_app [_]); [wf|exact H1]]. }
  match goal with |- context [if_zero_then_else HEAP ?th ?el lc2] =>
    pose proof (W_ite HEAP th el lc2 reg_HEAP) as H3; destruct (if_zero_then_else HEAP th el lc2) as [outer lc3] end.
  cbn [fst] in *. apply (W_app [_; _]); [wf|].
  apply H3; [apply (W_app [_; _]); [wf|exact H2']|wf].
Qed.

Lemma tfp_enc p t : temporary_from_position p = Ok t -> reg_enc t.
Proof.
  unfold temporary_from_position. destruct (N.ltb (p + RESERVED) REGISTER_NUM) eqn:H; [|discriminate].
  intros E; inversion E; subst. exact H.
Qed.
Lemma fresh_enc n c t : r_fresh n c = Ok t -> reg_enc t.
Proof. apply tfp_enc. Qed.

Lemma W_store_field n c blk o code : reg_enc blk -> N.leb o FIELDS_PER_BLOCK = true -> store_field n c blk o = Ok code -> W code.
Proof. unfold store_field. intros R O H. rinv H. inversion H; subst. pose proof (fresh_enc _ _ _ E) as T. wf. Qed.
Lemma W_load_field n c blk o code : reg_enc blk -> N.leb o FIELDS_PER_BLOCK = true -> load_field n c blk o = Ok code -> W code.
Proof. unfold load_field. intros R O H. rinv H. inversion H; subst. pose proof (fresh_enc _ _ _ E) as T. wf. Qed.
Lemma W_store_zero blk o : reg_enc blk -> N.leb o FIELDS_PER_BLOCK = true -> W (store_zero blk o).
Proof. intros R O. unfold store_zero. wf. Qed.
Lemma W_store_value b rem blk o code : reg_enc blk -> N.leb o FIELDS_PER_BLOCK = true -> store_value b rem blk o = Ok code -> W code.
Proof.
  unfold store_value. intros R O H. rinv H. pose proof (W_store_field _ _ _ _ _ R O E) as N1.
  destruct (chi_ext_dec (bchi b)) as [X|X].
  - rewrite X in H. inversion H; subst. apply W_app; [exact N1|apply W_store_zero; assumption].
  - rewrite (chi_match _ _ _ X) in H. rinv H. inversion H; subst. apply W_app; [exact N1|exact (W_store_field _ _ _ _ _ R O E0)].
Qed.
Lemma leb_le_trans a b : (a <= b)%N -> N.leb b FIELDS_PER_BLOCK = true -> N.leb a FIELDS_PER_BLOCK = true.
Proof. intros H K. apply N.leb_le in K. apply N.leb_le. lia. Qed.
Lemma W_store_zeros n blk : reg_enc blk -> N.leb n FIELDS_PER_BLOCK = true -> W (store_zeros n blk).
Proof.
  intros R O. unfold store_zeros. apply Forall_forall. intros c Hc. apply in_flat_map in Hc as (o & Ho & Hc).
  apply In_nseq in Ho. assert (O2 : N.leb o FIELDS_PER_BLOCK = true) by (apply (leb_le_trans o n); [lia|exact O]).
  exact (W_In _ (W_store_zero blk o R O2) c Hc).
Qed.
Lemma W_store_values rem blk (R : reg_enc blk) : forall l ff code,
  N.leb ff FIELDS_PER_BLOCK = true -> store_values l rem blk ff = Ok code -> W code.
Proof.
  induction l as [|b l IH]; intros ff code O H; cbn [store_values] in H.
  - inversion H; subst. apply W_store_zeros; assumption.
  - rinv H. inversion H; subst. assert (O1 : N.leb (ff - 1) FIELDS_PER_BLOCK = true) by (apply (leb_le_trans _ ff); [lia|exact O]).
    apply W_app; [exact (W_store_value _ _ _ _ _ R O1 E)|exact (IH _ _ O1 E0)].
Qed.
Lemma W_load_value b ex blk o m lc c lc' : reg_enc blk -> N.leb o FIELDS_PER_BLOCK = true ->
  load_value b ex blk o m lc = Ok (c, lc') -> W c.
Proof.
  unfold load_value. intros R O H. rinv H. pose proof (W_load_field _ _ _ _ _ R O E) as N1.
  destruct (chi_ext_dec (bchi b)) as [X|X]; [rewrite X in H; inversion H; subst; exact N1|].
  rewrite (chi_match _ _ _ X) in H. rinv H. pose proof (W_load_field _ _ _ _ _ R O E0) as N2. destruct m.
  - inversion H; subst. apply W_app; assumption.
  - rinv H. pose proof (W_share x1 1 lc (fresh_enc _ _ _ E1) eq_refl) as S1. destruct (r_share_block_n x1 1 lc) as [c3 lc1].
    inversion H; subst. apply W_app; [exact N1|apply W_app; [exact N2|exact S1]].
Qed.
Lemma W_load_values ex blk m (R : reg_enc blk) : forall l ff lc c lc',
  N.leb ff FIELDS_PER_BLOCK = true -> load_values l ex blk ff m lc = Ok (c, lc') -> W c.
Proof.
  induction l as [|b l IH]; intros ff lc c lc' O H; cbn [load_values] in H.
  - inversion H; subst. exact W_nil.
  - rinv H. inversion H; subst. assert (O1 : N.leb (ff - 1) FIELDS_PER_BLOCK = true) by (apply (leb_le_trans _ ff); [lia|exact O]).
    apply W_app; [exact (W_load_value _ _ _ _ _ _ _ _ R O1 E)|exact (IH _ _ _ _ O1 E0)].
Qed.

Lemma cap_le bp : N.leb (FIELDS_PER_BLOCK - bp_n bp) FIELDS_PER_BLOCK = true.
Proof. destruct bp; reflexivity. Qed.
Lemma fpb1_le : N.leb (FIELDS_PER_BLOCK - 1) FIELDS_PER_BLOCK = true.
Proof. reflexivity. Qed.

Lemma W_store_fields : forall fuel to_store remaining bp lc c lc',
  store_fields fuel to_store remaining bp lc = Ok (c, lc') -> W c.
Proof.
  induction fuel as [|fuel IH]; intros to_store remaining bp lc c lc' H; cbn [store_fields] in H; [discriminate|].
  destruct to_store as [|b0 ts].
  - destruct bp; [rinv H|]; inversion H; subst; [|exact W_nil].
    pose proof (fresh_enc _ _ _ E) as T. wf.
  - rinv H. pose proof (W_acquire x1 x2 lc (fresh_enc _ _ _ E1) (fresh_enc _ _ _ E2)) as A.
    destruct (acquire_block x1 x2 lc) as [c2 lc2]. rinv H. inversion H; subst.
    cbn [fst] in A.
    assert (N0 : W x) by (destruct bp; [inversion E; exact W_nil|exact (W_store_field _ _ _ _ _ reg_HEAP fpb1_le E)]).
    apply W_app; [exact N0|]. apply W_app; [exact (W_store_values _ _ reg_HEAP _ _ _ (cap_le bp) E0)|].
    apply W_app; [exact A|exact (IH _ _ _ _ _ _ E3)].
Qed.
Lemma W_release m r : reg_enc r -> W (match m with Release => release_block r | Share => [] end).
Proof. intros R. destruct m; [unfold release_block; wf|exact W_nil]. Qed.
Lemma W_load_fields : forall fuel to_load existing bp m lc c lc',
  load_fields fuel to_load existing bp m lc = Ok (c, lc') -> W c.
Proof.
  induction fuel as [|fuel IH]; intros to_load existing bp m lc c lc' H; cbn [load_fields] in H; [discriminate|].
  destruct to_load as [|b0 tl].
  - inversion H; subst. exact W_nil.
  - rstep H. destruct x as [c0 lc0]. rinv H. pose proof (IH _ _ _ _ _ _ _ E) as I0.
    pose proof (fresh_enc _ _ _ E0) as TM. inversion H; subst.
    assert (N2 : W x0) by (destruct bp; [inversion E1; exact W_nil|exact (W_load_field _ _ _ _ _ TM fpb1_le E1)]).
    apply W_app; [exact I0|]. apply W_app; [apply W_release; exact TM|]. apply W_app; [exact N2|].
    exact (W_load_values _ _ _ TM _ _ _ _ _ (cap_le bp) E2).
Qed.
Lemma W_r_load to_load existing lc c lc' : r_load to_load existing lc = Ok (c, lc') -> W c.
Proof.
  unfold r_load. intros H. destruct to_load as [|b0 tl].
  - inversion H; subst. exact W_nil.
  - rinv H. pose proof (fresh_enc _ _ _ E) as T.
    pose proof (W_load_fields _ _ _ _ _ _ _ _ E0) as I1. pose proof (W_load_fields _ _ _ _ _ _ _ _ E1) as I2.
    match type of H with context [if_zero_then_else TEMP ?th ?el ?l] =>
      pose proof (W_ite TEMP th el l reg_TEMP I1) as K; destruct (if_zero_then_else TEMP th el l) as [cc l3] end.
    cbn [fst] in K. inversion H; subst. apply (W_app [_]); [wf|]. apply K. apply (W_app [_; _]); [wf|exact I2].
Qed.
Lemma W_r_store to_store remaining lc c lc' : r_store to_store remaining lc = Ok (c, lc') -> W c.
Proof. unfold r_store. apply W_store_fields. Qed.

(* fewer than 28 positions have a register *)
Lemma tfp_cap q t : temporary_from_position q = Ok t -> (q < 2 * RV_SUBST_MAX)%N.
Proof.
  unfold temporary_from_position, RV_SUBST_MAX. change RESERVED with 4%N. change REGISTER_NUM with 32%N.
  destruct (N.ltb_spec (q + 4) 32); [intros _; lia|discriminate].
Qed.
Definition Lt (l : string) : Prop := True.

Lemma rv_translate_W types S defs lc code lc' :
  sg_types S = types -> xtors_le RV_XTORS_MAX types = true ->
  forallb (fun d => lin_check S (dctx d) (dbody d) && stmt_immP lit64 (dbody d)) defs = true ->
  translate rv_backend types defs lc = Ok (code, lc') -> W code.
Proof.
  intros <- XS G H.
  apply (translate_QLP rv_backend rv_backend_ok S RV_SUBST_MAX RV_XTORS_MAX lit64 reg_enc W Lt W_nil W_app)
    with (defs := defs) (lc := lc) (lc' := lc');
    cbn [rv_backend b_temporary_from_position b_temp b_return1 b_label b_mark b_jump b_jump_label b_jump_label_fixed
         b_jcc2 b_jcc1 b_load_immediate b_load_label b_add_and_jump b_arith b_mov b_print b_erase b_share_n b_store b_load
         b_store_temporary b_restore_temporary b_jump_length]; try assumption; try exact I.
  - exact tfp_enc.
  - exact reg_TEMP.
  - reflexivity.
  - intros l _. wf.
  - intros c. exact W_nil.
  - exact W_jump.
  - intros l _. apply W_jump_label.
  - intros l _. apply W_jump_label.
  - intros s a b l A Bb _. apply W_jcc; assumption.
  - intros s a l A _. apply W_jcc; [exact A|exact reg_ZERO].
  - exact W_load_immediate.
  - intros t k T K. apply W_load_immediate; [exact T|apply tag_lit64; exact K].
  - intros t l T _. apply W_load_label; exact T.
  - exact W_add_and_jump.
  - intros o t a b T A Bb _ _. apply W_arith; auto.
  - intros a A. apply W_arith; [exact reg_TEMP|exact reg_TEMP|exact A].
  - exact W_mov.
  - intros nl t c T. exact W_nil.
  - intros t l T. apply W_erase; exact T.
  - intros t n l T N. apply W_share; assumption.
  - intros a r l c l'. apply W_r_store.
  - intros a r l c l'. apply W_r_load.
  - intros t f T. pose proof reg_TEMP. wf.
  - intros t f T. pose proof reg_TEMP. wf.
  - intros k. exact I.
  - intros l ps _. exact I.
  - intros t xs k _. split; [exact I|intros; exact I].
  - exact tfp_cap.
  - intros d _. exact I.
Qed.

Lemma mem_str_In x l : mem_str x l = true <-> In x l.
Proof.
  unfold mem_str. rewrite existsb_exists. split.
  - intros (y & I & E). apply String.eqb_eq in E. subst. exact I.
  - intros I. exists x. split; [exact I|apply String.eqb_refl].
Qed.
Lemma first_dup_NoDup l : NoDup l -> first_dup l = None.
Proof.
  induction l as [|x r IH]; intros N; [reflexivity|]. inversion N as [|? ? NI N']; subst. cbn [first_dup].
  destruct (mem_str x r) eqn:M; [apply mem_str_In in M; contradiction|]. exact (IH N').
Qed.
Lemma find_none_intro {X} (f : X -> bool) l : (forall x, In x l -> f x = false) -> find f l = None.
Proof.
  induction l as [|x l IH]; intros H; [reflexivity|]. cbn [find]. rewrite (H x (or_introl eq_refl)).
  apply IH. intros y Hy. apply H. right. exact Hy.
Qed.
Lemma asm_wf_intro cs :
  W cs -> NoDup ("cleanup" :: LabelGen.defs all_defs cs) ->
  incl (LabelGen.refs referenced cs) ("cleanup" :: LabelGen.defs all_defs cs) ->
  asm_wf cs = None.
Proof.
  intros HW ND RF. unfold asm_wf. change (defined_labels cs) with (LabelGen.defs all_defs cs).
  rewrite (first_dup_NoDup _ ND).
  rewrite find_none_intro.
  2:{ intros l Hl. apply negb_false_iff. apply mem_str_In. apply RF. exact Hl. }
  rewrite find_none_intro; [reflexivity|].
  intros c Hc. apply negb_false_iff. exact (W_In _ HW c Hc).
Qed.

Theorem rv_compile_asm_wf p lc cs n lc' :
  labels_guard p = true -> lin_check_prog p = true -> imm_guard_rv p = true ->
  rv_compile p lc = Ok (cs, n, lc') -> asm_wf cs = None.
Proof.
  intros G1 LIN IG H. pose proof (X86WfCor.lin_check_calls_guard p LIN) as G2.
  destruct (rv_routine_labels p lc cs n lc' G1 G2 H) as (ND & RF & _).
  apply asm_wf_intro; [|exact ND|exact RF].
  unfold rv_compile in H. destruct (prog_has_print p); [discriminate|].
  pose proof (X86WfAll.compile_translate _ _ _ _ _ _ H) as E0.
  unfold imm_guard_rv, imm_guardP in IG. apply andb_true_iff in IG as [IG XS].
  apply (rv_translate_W (ptypes p) (sigs_of p) (pdefs p) lc cs lc' eq_refl XS); [|exact E0].
  apply forallb_forall. intros d Hd. unfold lin_check_prog in LIN. rewrite forallb_forall in LIN, IG.
  specialize (LIN d Hd). specialize (IG d Hd). unfold lin_check_def in LIN. rewrite LIN, IG. reflexivity.
Qed.

(* code_small from the size bound of C19 *)
Lemma size_of_le cs : (size_of cs <= 32 * Z.of_N (AxSize.len cs))%Z.
Proof.
  unfold AxSize.len. induction cs as [|c cs IH]; [cbn; lia|]. cbn [size_of List.length].
  pose proof (isize_cases c). lia.
Qed.
Lemma rv_K_59 : rv_K = 59%N.
Proof. reflexivity. Qed.
Theorem rv_compile_code_small p lc cs n lc' :
  lin_check_prog p = true -> size_guard p = true ->
  rv_compile p lc = Ok (cs, n, lc') -> code_small cs = true.
Proof.
  intros LIN SG H. pose proof (rv_compile_size p lc cs n lc' (lin_check_prog_sub_wf p LIN) H) as B.
  unfold rv_bound in B. rewrite rv_K_59 in B. unfold size_guard in SG. apply N.leb_le in SG. unfold SIZE_MAX in SG.
  apply Z.ltb_lt. pose proof (size_of_le cs). unfold CODE_BASE. lia.
Qed.
