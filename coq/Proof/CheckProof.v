(* C15, the fragment without type parameters / type arguments ([mono_prog]): the program-level results of
   Proof/CheckMono*.v for [check] (the checker as it is, since fix d524b1f) and [check_before_fix] (the one before),
   as Props/C15.v quotes them (C15_*_partial), and [check_annotates] / [check_annotated] for all programs. *)
From Coq Require Import List String Bool Permutation.
From SCC Require Import Lang.FunSyn Model.Check Sem.FunTyping
  Proof.CheckWitness Proof.CheckAnn Proof.TypingReject Proof.CheckBuild Proof.CheckMono
  Proof.CheckMonoSound Proof.CheckMonoProg Proof.CheckMonoComplete Proof.CheckMonoProgC Proof.CheckMonoFaithful.

(* soundness for programs without type parameters and type arguments (for all programs with
   identifier-like names: Proof/CheckFixed.v check_sound) *)
Lemma check_sound_partial : forall p q, mono_prog p = true -> check p = COk q -> has_type p.
Proof. intros p q Hm H. exact (check_gen_sound_mono true p q Hm H). Qed.

Lemma check_complete_partial : forall p, mono_prog p = true -> has_type p -> exists q, check p = COk q.
Proof. exact check_complete_mono. Qed.
Lemma check_exact_partial : forall p, mono_prog p = true -> (has_type p <-> exists q, check p = COk q).
Proof.
  intros p Hm. split; [apply check_complete_partial; assumption|].
  intros [q Hq]. eapply check_sound_partial; eassumption.
Qed.
(* ... in particular acceptance does not depend on the order of the declarations, as far as the
   typing rules do not (they consult the declarations through find_*, so for permutations that keep
   the rules' verdict - e.g. any permutation of a program whose names are declared once - the
   checker's verdict is the same); stated for the verdict of the rules: *)
Lemma check_order_independent_partial : forall p p', mono_prog p = true -> mono_prog p' = true ->
  (has_type p <-> has_type p') -> ((exists q, check p = COk q) <-> (exists q, check p' = COk q)).
Proof.
  intros p p' Hm Hm' H. rewrite <- (check_exact_partial p Hm), <- (check_exact_partial p' Hm'). exact H.
Qed.

(* regression statements about the checker before fix d524b1f *)
Lemma witness_in_fragment : mono_prog p_instance_order = true.
Proof. vm_compute. reflexivity. Qed.
Lemma check_before_fix_sound_partial : forall p q, mono_prog p = true -> check_before_fix p = COk q -> has_type p.
Proof. intros p q Hm H. exact (check_gen_sound_mono false p q Hm H). Qed.
Lemma check_before_fix_incomplete_in_fragment :
  ~ (forall p, mono_prog p = true -> has_type p -> exists q, check_before_fix p = COk q).
Proof.
  intro H. destruct (H p_instance_order witness_in_fragment instance_order_well_typed) as [q Hq].
  rewrite instance_order_rejected_before_fix in Hq. discriminate.
Qed.
Lemma check_before_fix_undefined_only_partial : forall p, mono_prog p = true -> has_type p ->
  (exists q, check_before_fix p = COk q) \/ check_before_fix p = CErr EUndefined.
Proof. exact check_before_fix_mono. Qed.
Lemma check_before_fix_accepts_check_accepts_partial : forall p q, mono_prog p = true ->
  check_before_fix p = COk q -> exists q', check p = COk q'.
Proof. intros p q Hm H. apply check_complete_partial; [assumption|]. eapply check_before_fix_sound_partial; eassumption. Qed.

Definition check_annotates := check_gen_annotates true.
Definition check_annotated := check_gen_annotated true.
