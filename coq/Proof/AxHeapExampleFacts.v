(* Facts about the example program of Proof/AxHeapExample.v, by computation and by the theorems of
   Proof/AxHeapSafe.v / Proof/AxHeapProps.v (non-vacuity of their hypotheses). *)
From Coq Require Import String List ZArith NArith Bool Permutation.
From SCC Require Import Base.Sexp Lang.AxSyn Sem.AxSem Model.Linearize Model.LinCheck Sem.AxHeap.
From SCC Require Import Proof.AxHeapTyping Proof.AxHeapExample.
From SCC Require Import Model.Heap Proof.HeapMore Proof.HeapTrace Proof.AxHeapSafe Proof.AxHeapProps.
Import ListNotations.
Open Scope Z_scope.

Lemma hx_checked : prog_ok hx_prog = true /\ lin_check_prog hx_lin = true /\ entry_ext hx_lin = true.
Proof. vm_compute. auto. Qed.

(* One evaluation of a run yields all that is needed of it: output and exit value, final frontier, peak
   of blocks in use.  (Evaluating hx_frontier and peak_n separately runs the program once for each.) *)
Definition summary (r : option (obs * hconf * list op)) : option (obs * Z * option nat) :=
  match r with
  | Some (o, c, tr) => Some (o, frontier (hc_heap c), peak_n 4096 100 tr (init 4096))
  | None => None
  end.
Definition hx_run (n : Z) := hrun_prog 2000 4096 hx_lin [n; 100].

Lemma hx_summary_3 : summary (hx_run 3) = Some (([(true, 106)], OExit 106), 4480, Some 5%nat).
Proof. vm_compute. reflexivity. Qed.
Lemma hx_summary_30 : summary (hx_run 30) = Some (([(true, 565)], OExit 565), 4480, Some 5%nat).
Proof. vm_compute. reflexivity. Qed.

Lemma summary_spec r o f pk : summary r = Some (o, f, pk) ->
  match r with Some (o, c, _) => Some (o, frontier (hc_heap c)) | None => None end = Some (o, f) /\
  peak_n 4096 100 (match r with Some (_, _, tr) => tr | None => [] end) (init 4096) = pk.
Proof. destruct r as [[[o' c] tr]|]; [|discriminate]. intros H. inversion H. auto. Qed.

(* hx_frontier n and hx_trace n are projections of hx_run n *)
Lemma hx_summary_spec n o f pk : summary (hx_run n) = Some (o, f, pk) ->
  hx_frontier n = Some (o, f) /\ peak_n 4096 100 (hx_trace n) (init 4096) = pk.
Proof. unfold hx_frontier, hx_trace, hx_run. apply summary_spec. Qed.

Lemma hx_frontier_3 : hx_frontier 3 = Some (([(true, 106)], OExit 106), 4480).
Proof. exact (proj1 (hx_summary_spec 3 _ _ _ hx_summary_3)). Qed.
Lemma hx_frontier_30 : hx_frontier 30 = Some (([(true, 565)], OExit 565), 4480).
Proof. exact (proj1 (hx_summary_spec 30 _ _ _ hx_summary_30)). Qed.

Lemma run_reach fuel base p args o f :
  match hrun_prog fuel base p args with Some (o, c, _) => Some (o, frontier (hc_heap c)) | None => None end = Some (o, f) ->
  exists c, hreach base p args (match hrun_prog fuel base p args with Some (_, _, tr) => tr | None => [] end) c /\
            frontier (hc_heap c) = f.
Proof.
  destruct (hrun_prog fuel base p args) as [[[o' c] tr]|] eqn:E; [|discriminate].
  intros H. inversion H; subst. exists c. split; [exact (hrun_prog_reach _ _ _ _ _ _ _ E)|reflexivity].
Qed.
Lemma hx_reach n o f : hx_frontier n = Some (o, f) ->
  exists c, hreach 4096 hx_lin [n; 100] (hx_trace n) c /\ frontier (hc_heap c) = f.
Proof. unfold hx_frontier, hx_trace. apply run_reach. Qed.

(* the trace of the 3-iteration run: 32 operations of every kind *)
Lemma hx_trace_3 : hx_trace 3 =
  [OAllocObj [0]; OAllocObj []; OAllocObj [0; 0]; OAllocObj [0; 4160]; OShare 4224 1;
   OAllocObj [0; 0; 4224; 0; 4224]; OLoadObj 1 4352; OLoadObj 0 4224; OErase 4160; OLoadObj 0 4224; OErase 4160;
   OAllocObj []; OAllocObj [0; 0]; OAllocObj [0; 4224]; OShare 4288 1;
   OAllocObj [0; 0; 4288; 0; 4288]; OLoadObj 1 4416; OLoadObj 0 4288; OErase 4224; OLoadObj 0 4288; OErase 4224;
   OAllocObj []; OAllocObj [0; 0]; OAllocObj [0; 4288]; OShare 4352 1;
   OAllocObj [0; 0; 4352; 0; 4352]; OLoadObj 1 4160; OLoadObj 0 4352; OErase 4288; OLoadObj 0 4352; OErase 4288;
   OLoadObj 0 4096].
Proof. vm_compute. reflexivity. Qed.

(* by the THEOREM (not by computation): every precondition holds along the trace *)
Lemma hx_trace_wf n o f : hx_frontier n = Some (o, f) -> pre_trace (init 4096) [] (hx_trace n).
Proof.
  intros H. destruct (hx_reach n o f H) as (c & HR & _). destruct hx_checked as (_ & LP & EE).
  apply (prog_trace_wf 4096 hx_lin [n; 100] LP EE ltac:(reflexivity) _ c HR).
Qed.
(* ... which the boolean form of the preconditions confirms on the 3-iteration run *)
Lemma hx_trace_wf_computed : pre_traceb (init 4096) [] (hx_trace 3) = true.
Proof. vm_compute. reflexivity. Qed.

(* peak of blocks in use: 5 in both runs *)
Lemma hx_peak n o f pk : summary (hx_run n) = Some (o, f, Some pk) ->
  peak_bound 4096 (hx_trace n) pk /\ peak_attained 4096 (hx_trace n) pk.
Proof.
  intros H. destruct (hx_summary_spec n o f (Some pk) H) as [F P].
  apply (peak_n_peak 4096 100); [reflexivity|exact (hx_trace_wf n o f F)|exact P].
Qed.
Lemma hx_peak_3 : peak_bound 4096 (hx_trace 3) 5 /\ peak_attained 4096 (hx_trace 3) 5.
Proof. exact (hx_peak 3 _ _ _ hx_summary_3). Qed.
Lemma hx_peak_30 : peak_bound 4096 (hx_trace 30) 5 /\ peak_attained 4096 (hx_trace 30) 5.
Proof. exact (hx_peak 30 _ _ _ hx_summary_30). Qed.

(* the hypotheses of prog_loop_space_constant are satisfiable: 3 and 30 iterations *)
Lemma hx_loop_space :
  exists c1 c2, hreach 4096 hx_lin [3; 100] (hx_trace 3) c1 /\ hreach 4096 hx_lin [30; 100] (hx_trace 30) c2 /\
    frontier (hc_heap c1) = frontier (hc_heap c2) /\ frontier (hc_heap c1) = 4096 + (5 + 1) * BLOCK.
Proof.
  destruct (hx_reach 3 _ _ hx_frontier_3) as (c1 & R1 & F1). destruct (hx_reach 30 _ _ hx_frontier_30) as (c2 & R2 & F2).
  destruct hx_checked as (_ & LP & EE). destruct hx_peak_3 as [B1 A1]. destruct hx_peak_30 as [B2 A2].
  exists c1, c2. split; [exact R1|]. split; [exact R2|]. split.
  - exact (prog_loop_space_constant 4096 hx_lin _ _ _ c1 _ c2 5%nat LP EE ltac:(reflexivity) R1 R2 B1 A1 B2 A2).
  - exact (prog_footprint_exact 4096 hx_lin _ LP EE ltac:(reflexivity) _ c1 5%nat R1 B1 A1).
Qed.
