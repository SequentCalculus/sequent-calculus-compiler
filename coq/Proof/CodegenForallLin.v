(* A refinement of Proof/CodegenForall.v for statements accepted by the ordered linear discipline:
   "every piece of emitted code comes from a back-end method", where the method hypotheses may use what
   the generic code generator guarantees about the ARGUMENTS it hands to the back end:
     - the target of a binary operation differs from both operands (the bound variable is fresh: lin_check),
       or the operation is the table dispatch `tmp <- tmp + tag`;
     - the immediate of a tag load / table jump is `jump_length k` with k below the number of xtors of a
       declared type (bounded by XM);
     - a literal passes the test `lit`, a reference count is raised by less than SM;
     - every label handed to the back end satisfies L, given that L holds of `lab<k>`, `cleanup`, the labels
       of declared definitions and the table / clause labels of declared types.
   The code generator reads only the ids of its context; as in Proof/CodegenTotal.v the statement is proved for
   every context c' with the ids of the context c that lin_check threads.
   The bounds are parameters ([translate_QG]).  Where SM comes from is left open there (Hsub); for x86-64 it is
   a guard on the program (XM, SM, lit = XTORS_MAX, SUBST_MAX, lit64 of Sem/WfGuard.v: [translate_QL], used
   for C14 with Q = every instruction encodable, references only to non-mark labels, calls only to the two
   print routines); for AArch64 and RISC-V it follows from the capacity (Proof/CodegenForallLinP.v). *)
From Coq Require Import List ZArith NArith String Bool Lia.
From SCC Require Import Base.Sexp Lang.AxSyn Model.ParMoves Model.Backend Model.Linearize Model.LinCheck Model.Capacity
  Sem.WfGuard Sem.WfGuard64 Proof.LinBasics Proof.LinTyping Proof.SubstGraph Proof.BackendInv Proof.CodegenTotal Proof.CodegenForall.
Import ListNotations.
Open Scope list_scope.

Lemma position_of_app_l c d id : forall k, In id (ids c) -> position_of (c ++ d) id k = position_of c id k.
Proof.
  induction c as [|b c IH]; intros k H; cbn in H; [contradiction|]. cbn [app position_of].
  destruct (N.eqb_spec (idn (bvar b)) id) as [E|E]; [reflexivity|].
  destruct H as [H|H]; [contradiction|]. apply IH; exact H.
Qed.
Lemma position_of_app_r c d id : forall k, ~ In id (ids c) ->
  position_of (c ++ d) id k = position_of d id (k + N.of_nat (List.length c)).
Proof.
  induction c as [|b c IH]; intros k H; cbn [app position_of List.length].
  - f_equal. lia.
  - destruct (N.eqb_spec (idn (bvar b)) id) as [E|E]; [exfalso; apply H; left; exact E|].
    rewrite IH by (intros X; apply H; right; exact X). f_equal. lia.
Qed.
Lemma xtor_position_lt tag : forall xs i p, xtor_position xs tag i = Ok p -> (p < i + N.of_nat (List.length xs))%N.
Proof.
  induction xs as [|x xs IH]; intros i p H; cbn [xtor_position] in H; [discriminate|].
  destruct (ident_eqb (xname x) tag).
  - inversion H; subst. cbn [List.length]. lia.
  - apply IH in H. cbn [List.length]. lia.
Qed.
Lemma lookup_type_In types t d : lookup_type types t = Ok d -> In d types.
Proof.
  unfold lookup_type. destruct t as [|n]; [discriminate|].
  destruct (find (fun d => ident_eqb (tname d) n) types) as [d0|] eqn:F; [|discriminate].
  intros H; inversion H; subst. apply find_some in F. tauto.
Qed.
Lemma transpose_shape re c : forall b tg, In (b, tg) (transpose re c) ->
  tg = map (fun p => idn (bvar (fst p))) (filter (fun p => N.eqb (idn (bvar b)) (idn (snd p))) re).
Proof.
  unfold transpose.
  assert (G : forall l m0,
            (forall b tg, In (b, tg) m0 -> tg = map (fun p => idn (bvar (fst p))) (filter (fun p => N.eqb (idn (bvar b)) (idn (snd p))) re)) ->
            forall b tg, In (b, tg) (fold_left (fun m b =>
               map_insert binding_compare b
                 (map (fun p => idn (bvar (fst p))) (filter (fun p => N.eqb (idn (bvar b)) (idn (snd p))) re)) m) l m0) ->
            tg = map (fun p => idn (bvar (fst p))) (filter (fun p => N.eqb (idn (bvar b)) (idn (snd p))) re)).
  { induction l as [|b0 l IH]; intros m0 H0 b tg H; cbn [fold_left] in H; [eapply H0; exact H|].
    eapply IH; [|exact H]. intros b1 tg1 H1. apply In_map_insert in H1 as [E|H1]; [|eapply H0; exact H1].
    inversion E; subst. reflexivity. }
  intros b tg. apply G. intros ? ? [].
Qed.
Lemma transpose_len re c b tg : In (b, tg) (transpose re c) -> (List.length tg <= List.length re)%nat.
Proof. intros H. rewrite (transpose_shape _ _ _ _ H), map_length. apply filter_len_le. Qed.
Lemma cls_ok_xtors S t cls : cls_ok S t cls = true -> exists xs, type_xtors S t = Some xs.
Proof. unfold cls_ok. destruct (type_xtors S t) as [xs|]; [eauto|discriminate]. Qed.

(* the guard, with the tests on substitutions and literals as parameters *)
Fixpoint stmt_immG (sub : list (binding * ident) -> bool) (lit : Z -> bool) (s : stmt) : bool :=
  let go := fix go (cls : list (ident * ctx * stmt)) : bool :=
    match cls with [] => true | (_, _, b) :: r => stmt_immG sub lit b && go r end in
  match s with
  | Substitute re next => sub re && stmt_immG sub lit next
  | Literal n _ next => lit n && stmt_immG sub lit next
  | Op _ _ _ _ next | PrintI64 _ _ next | Let _ _ _ _ next => stmt_immG sub lit next
  | IfC _ _ _ t e => stmt_immG sub lit t && stmt_immG sub lit e
  | Call _ _ | Exit _ | Invoke _ _ _ _ => true
  | Switch _ _ cls => go cls
  | Create _ _ _ cls next => go cls && stmt_immG sub lit next
  end.
Definition clauses_immG sub lit (cls : list clause) : bool := forallb (fun c => stmt_immG sub lit (cl_body c)) cls.

Definition sub_small (re : list (binding * ident)) : bool := N.leb (N.of_nat (List.length re)) SUBST_MAX.

Lemma stmt_imm_G s : stmt_imm s = stmt_immG sub_small lit64 s.
Proof.
  induction s using stmt_ind2; cbn [stmt_imm stmt_immG]; rewrite ?IHs, ?IHs1, ?IHs2; try reflexivity; try f_equal.
  all: induction H as [|[[x cx] b] r Hb _ IH]; [reflexivity|]; cbn [cl_body snd] in Hb; rewrite Hb, IH; reflexivity.
Qed.
Lemma stmt_immP_G lit s : stmt_immP lit s = stmt_immG (fun _ => true) lit s.
Proof.
  induction s using stmt_ind2; cbn [stmt_immP stmt_immG]; rewrite ?IHs, ?IHs1, ?IHs2; try reflexivity; try f_equal.
  all: induction H as [|[[x cx] b] r Hb _ IH]; [reflexivity|]; cbn [cl_body snd] in Hb; rewrite Hb, IH; reflexivity.
Qed.

Section ForallLinG.
Context {Code Temp : Type} (B : backend Code Temp).
Hypothesis OKB : backend_ok B.
Variable S : sigs.
Variables SM XM : N.
Variable sub : list (binding * ident) -> bool.
Variable lit : Z -> bool.
Notation types := (sg_types S).
Variable T : Temp -> Prop.
Variable Q : list Code -> Prop.
Variable L : string -> Prop.
Hypothesis Qnil : Q [].
Hypothesis Qapp : forall a b, Q a -> Q b -> Q (a ++ b).
Hypothesis Ttfp : forall p t, b_temporary_from_position B p = Ok t -> T t.
Hypothesis Ttemp : T (b_temp B).
Hypothesis Tret : T (b_return1 B).
Hypothesis m_label : forall l, L l -> Q [b_label B l].
Hypothesis m_mark : forall c, Q (b_mark B c).
Hypothesis m_jump : forall t, T t -> Q (b_jump B t).
Hypothesis m_jump_label : forall l, L l -> Q (b_jump_label B l).
Hypothesis m_jump_label_fixed : forall l, L l -> Q (b_jump_label_fixed B l).
Hypothesis m_jcc2 : forall s a b l, T a -> T b -> L l -> Q (b_jcc2 B s a b l).
Hypothesis m_jcc1 : forall s a l, T a -> L l -> Q (b_jcc1 B s a l).
Hypothesis m_load_immediate : forall t i, T t -> lit i = true -> Q (b_load_immediate B t i).
Hypothesis m_load_tag : forall t k, T t -> (k < XM)%N -> Q (b_load_immediate B t (b_jump_length B k)).
Hypothesis m_load_label : forall t l, T t -> L l -> Q (b_load_label B t l).
Hypothesis m_add_and_jump : forall t k, T t -> (k < XM)%N -> Q (b_add_and_jump B t (b_jump_length B k)).
Hypothesis m_arith : forall o t a b, T t -> T a -> T b -> t <> a -> t <> b -> Q (b_arith B o t a b).
Hypothesis m_arith_table : forall a, T a -> Q (b_arith B Sum (b_temp B) (b_temp B) a).
Hypothesis m_mov : forall t s, T t -> T s -> Q (b_mov B t s).
Hypothesis m_print : forall nl t c, T t -> Q (b_print B nl t c).
Hypothesis m_erase : forall t lc, T t -> Q (fst (b_erase B t lc)).
Hypothesis m_share : forall t n lc, T t -> (n < SM)%N -> Q (fst (b_share_n B t n lc)).
Hypothesis m_store : forall a r lc c lc', b_store B a r lc = Ok (c, lc') -> Q c.
Hypothesis m_load : forall a r lc c lc', b_load B a r lc = Ok (c, lc') -> Q c.
Hypothesis m_store_temporary : forall t f, T t -> Q (b_store_temporary B t f).
Hypothesis m_restore_temporary : forall t f, T t -> Q (b_restore_temporary B t f).
Hypothesis L_lab : forall k, L ("lab" +++ n_to_string k).
Hypothesis L_cleanup : L "cleanup".
Hypothesis L_def : forall l ps, lookup_label S l = Some ps -> L (show_ident l +++ "_").
Hypothesis L_type : forall t xs k, type_xtors S t = Some xs ->
  L (type_label t k) /\ forall x, L (type_label t k +++ "_" +++ x).
Hypothesis X_small : xtors_le XM types = true.
(* a Substitute that passes the guard and compiles makes at most SM copies of one variable *)
Hypothesis Hsub : forall re c' code, sub re = true -> NoDup (ids (map fst re)) ->
  code_exchange B (transpose re c') c' (map fst re) = Ok code ->
  forall b tg, In (b, tg) (transpose re c') -> (N.of_nat (List.length tg) <= SM)%N.

Let vtT := vt_T B T Ttfp.

Lemma tag_small t d tag p : lookup_type types t = Ok d -> xtor_position (txtors d) tag 0 = Ok p -> (p < XM)%N.
Proof.
  intros LT XP. apply lookup_type_In in LT. apply xtor_position_lt in XP.
  unfold xtors_le in X_small. rewrite forallb_forall in X_small. specialize (X_small d LT). apply N.leb_le in X_small. lia.
Qed.

Lemma urc_QG v c k lc code lc' :
  (N.of_nat k <= SM)%N -> update_reference_count B v c k lc = Ok (code, lc') -> Q code.
Proof.
  unfold update_reference_count. intros HK H. ub H. pose proof (vtT _ _ _ _ E) as Tx.
  destruct k as [|[|k]]; inversion H; subst.
  - rewrite (surjective_pairing (b_erase B x lc)) in H1. inversion H1; subst. apply m_erase; exact Tx.
  - exact Qnil.
  - rewrite (surjective_pairing (b_share_n B x _ lc)) in H1. inversion H1; subst. apply m_share; [exact Tx|lia].
Qed.
Lemma cwc_QG c : forall tm lc code lc',
  (forall b tg, In (b, tg) tm -> (N.of_nat (List.length tg) <= SM)%N) ->
  code_weakening_contraction B tm c lc = Ok (code, lc') -> Q code.
Proof.
  induction tm as [|[b tg] tm IH]; intros lc code lc' HT H; cbn [code_weakening_contraction] in H.
  - inversion H; subst. exact Qnil.
  - assert (HT' : forall b0 tg0, In (b0, tg0) tm -> (N.of_nat (List.length tg0) <= SM)%N)
      by (intros; eapply HT; right; eassumption).
    assert (H0 : (N.of_nat (List.length tg) <= SM)%N) by (eapply HT; left; reflexivity).
    destruct (bchi b).
    + ub H. destruct x as [c1 lc1]. ub H. destruct x as [c2 lc2]. inversion H; subst.
      apply Qapp; [eapply urc_QG; eauto|eapply IH; eauto].
    + ub H. destruct x as [c1 lc1]. ub H. destruct x as [c2 lc2]. inversion H; subst.
      apply Qapp; [eapply urc_QG; eauto|eapply IH; eauto].
    + eapply IH; eauto.
Qed.

Lemma code_table_QG cls base : (forall x, L (base +++ "_" +++ x)) -> Q (code_table B cls base).
Proof. intros HL. unfold code_table. apply (Q_flat_map Q Qnil Qapp). intros; apply m_jump_label_fixed, HL. Qed.

Lemma vt_fresh_neq (c : ctx) (bv : binding) a t ta :
  ~ In (idn (bvar bv)) (ids c) -> In a (ids c) ->
  variable_temporary B Snd (c ++ [bv]) (idn (bvar bv)) = Ok t ->
  variable_temporary B Snd (c ++ [bv]) a = Ok ta -> t <> ta.
Proof.
  unfold variable_temporary. intros NI IA Ht Ha.
  rewrite (position_of_app_r c [bv] _ 0 NI) in Ht. cbn [position_of] in Ht. rewrite N.eqb_refl in Ht.
  rewrite (position_of_app_l c [bv] a 0 IA) in Ha.
  destruct (position_of c a 0) as [p|] eqn:P; [|discriminate]. apply position_of_lt in P.
  intros E; subst ta. pose proof (pos_inj B OKB _ _ _ Ht Ha) as X. cbn [tnum_n] in X. lia.
Qed.

Definition stmt_QG (s : stmt) : Prop :=
  forall c c' lc code lc', ids c' = ids c -> lin_check S c s = true -> stmt_immG sub lit s = true ->
    code_statement B types s c' lc = Ok (code, lc') -> Q code.

(* the clause loop of Switch (gf cx = c0 ++ cx) and Create (gf cx = cx ++ env): gf forms the context the checker sees,
   ctxf the one the code generator is given *)
Lemma loop_QG (fresh : string) (HF : forall x, L (fresh +++ "_" +++ x)) ldf (ctxf gf : ctx -> ctx) :
  (forall cx, ids (ctxf cx) = ids (gf cx)) ->
  (forall cx lc c lc', ldf cx lc = Ok (c, lc') -> Q c) ->
  forall cls,
  Forall (fun cl => stmt_QG (cl_body cl)) cls ->
  forallb (fun cl => lin_check S (gf (cl_ctx cl)) (cl_body cl)) cls = true -> clauses_immG sub lit cls = true ->
  forall lc code lc', cl_loop B types fresh ldf ctxf cls lc = Ok (code, lc') -> Q code.
Proof.
  intros E0 LD. induction cls as [|[[x cx] body] r IH]; intros F LC IM lc code lc' H; cbn [cl_loop] in H.
  - inversion H; subst. exact Qnil.
  - inversion F as [|? ? Fb Fr]; subst. cbn [clauses_immG forallb cl_ctx cl_body fst snd] in LC, IM.
    sp LC L1 L2. sp IM I1 I2.
    ubp H. ubp H. ubp H. inversion H; subst.
    apply (Qcons Q Qapp); [apply m_label, HF|]. apply Qapp; [eapply LD; eauto|]. apply Qapp.
    + eapply (Fb (gf cx) (ctxf cx) _ _ _ (E0 cx) L1 I1); eauto.
    + eapply IH; eauto.
Qed.

Lemma imm_switch v t cls : stmt_immG sub lit (Switch v t cls) = clauses_immG sub lit cls.
Proof.
  cbn [stmt_immG]. induction cls as [|[[x cx] b] r IH]; [reflexivity|].
  cbn [clauses_immG forallb cl_body snd]. rewrite IH. reflexivity.
Qed.
Lemma imm_create v t env cls next : stmt_immG sub lit (Create v t env cls next) = clauses_immG sub lit cls && stmt_immG sub lit next.
Proof.
  cbn [stmt_immG]. f_equal. induction cls as [|[[x cx] b] r IH]; [reflexivity|].
  cbn [clauses_immG forallb cl_body snd]. rewrite IH. reflexivity.
Qed.

Theorem code_statement_QG : forall s, stmt_QG s.
Proof.
  induction s using stmt_ind2; intros c c' lc code lc' Hs LN IM CS; cbn [code_statement] in CS; ub CS;
    destruct x as [body lcb]; inversion CS; subst; clear CS; cbn [fst snd]; apply Qapp; try apply m_mark;
    pose proof (lin_nodup _ _ _ LN) as NDc.
  - (* Substitute *)
    cbn [lin_check] in LN. cbn [stmt_immG] in IM. sp LN L0 L1. sp L1 Lh Ln. sp IM I0 In_.
    ub E. destruct x as [c1 lc1]. ub E. ub E. destruct x0 as [c3 lc3]. inversion E; subst.
    apply Qapp; [|apply Qapp].
    + eapply cwc_QG; [|eauto]. exact (Hsub _ _ _ I0 (lin_nodup _ _ _ Ln) E1).
    + eapply (exchange_Q B (cmp_eq B OKB) T Q Qnil Qapp Ttfp m_mov m_store_temporary m_restore_temporary); eauto.
    + eapply (IHs _ _ _ _ _ eq_refl Ln In_); eauto.
  - (* Call *)
    cbn [lin_check] in LN. sp LN L0 L1. destruct (lookup_label S l) as [ps|] eqn:LL; [|discriminate].
    inversion E; subst. apply m_jump_label. eapply L_def; eauto.
  - (* Let *)
    cbn [lin_check] in LN. cbn [stmt_immG] in IM. sp LN L0 L1.
    destruct (split_lastn (List.length args) c) as [[c0 tl]|] eqn:SP; [|discriminate].
    sp L1 L1 Ln. sp L1 Lm La.
    destruct (split_lastn_parts _ _ _ _ SP) as (EB & Et & Ec & Lty).
    assert (Hs' : ids (butlast_n (List.length args) c' ++ [mkb v Prd t]) = ids (c0 ++ [mkb v Prd t])).
    { rewrite !ids_app, (ids_butlast _ _ _ Hs), <- EB. reflexivity. }
    ub E. ub E. rewrite (split_last_ok _ _ _ _ _ Hs SP) in E. cbn [rbind] in E.
    ub E. destruct x1 as [c1 lc1]. ub E. ub E. destruct x2 as [c3 lc3]. inversion E; subst.
    apply Qapp; [eapply m_store; eauto|]. apply Qapp.
    + apply m_load_tag; [eapply vtT; eauto|eapply tag_small; eauto].
    + eapply (IHs _ _ _ _ _ Hs' Ln IM); eauto.
  - (* Switch *)
    rewrite lin_check_switch in LN. rewrite imm_switch in IM. sp LN L0 L1.
    destruct (split_lastn 1 c) as [[c0 [|b [|]]]|] eqn:SP; try discriminate.
    sp L1 L1 Lc. sp L1 L1 Lk. sp L1 L1 Lty. sp L1 Li Lp.
    destruct (split_lastn_parts _ _ _ _ SP) as (EB & Et & Ec & Ll).
    destruct (cls_ok_xtors _ _ _ Lk) as [xs TX]. destruct (L_type t xs (lc + 1)%N TX) as [LF LX].
    ub E. ub E. destruct x0 as [c3 lc3]. inversion E; subst. clear E.
    apply Qapp; [|apply (Qcons Q Qapp); [apply m_label; exact LF|apply Qapp]].
    + destruct (Nat.leb _ 1); [inversion E0; subst; exact Qnil|]. ub E0. inversion E0; subst.
      pose proof (vtT _ _ _ _ E) as Tx. apply Qapp; [apply m_load_label; [exact Ttemp|exact LF]|].
      apply Qapp; [apply m_arith_table; exact Tx|apply m_jump; exact Ttemp].
    + destruct (Nat.leb _ 1); [exact Qnil|apply code_table_QG; exact LX].
    + rewrite removelast_butlast in E1.
      apply (loop_QG _ LX (fun cx lc => b_load B cx (butlast_n 1 c') lc) (fun cx => butlast_n 1 c' ++ cx)
               (fun cx => butlast_n 1 c ++ cx)) with (3 := H) (4 := Lc) (5 := IM) (6 := E1).
      * intros cx. rewrite !ids_app, (ids_butlast 1 _ _ Hs). reflexivity.
      * intros cx. apply m_load.
  - (* Create *)
    destruct env as [env|]; [|discriminate].
    rewrite lin_check_create in LN. rewrite imm_create in IM. sp LN L0 L1. sp IM Ic In_.
    destruct (split_lastn (List.length env) c) as [[c0 tl]|] eqn:SP; [|discriminate].
    sp L1 L1 Ln. sp L1 L1 Lc. sp L1 Lm Lk.
    destruct (split_lastn_parts _ _ _ _ SP) as (EB & Et & Ec & Ll).
    assert (Hs' : ids (butlast_n (List.length env) c' ++ [mkb v Cns t]) = ids (c0 ++ [mkb v Cns t])).
    { rewrite !ids_app, (ids_butlast _ _ _ Hs), <- EB. reflexivity. }
    assert (He : ids (last_n (List.length env) c') = ids env).
    { rewrite (ids_last _ _ _ Hs), <- Et. apply ctx_match_Prop in Lm. apply Lm. }
    destruct (cls_ok_xtors _ _ _ Lk) as [xs TX].
    rewrite (split_last_ok _ _ _ _ _ Hs SP) in E. cbn [rbind] in E.
    ubp E. ub E. ubp E. ubp E. inversion E; subst. clear E.
    match goal with |- context [type_label t ?k] => destruct (L_type t xs k TX) as [LF LX] end.
    apply Qapp; [eapply m_store; eauto|]. apply Qapp; [apply m_load_label; [eapply vtT; eauto|exact LF]|].
    apply Qapp; [eapply (IHs _ _ _ _ _ Hs' Ln In_); eauto|]. apply (Qcons Q Qapp); [apply m_label; exact LF|]. apply Qapp.
    + destruct (Nat.leb _ 1); [exact Qnil|apply code_table_QG; exact LX].
    + match goal with EL : _ = Ok (?c5, lc') |- Q ?c5 =>
        apply (loop_QG _ LX (fun cx lc => b_load B (last_n (List.length env) c') cx lc) (fun cx => cx ++ last_n (List.length env) c')
                 (fun cx => cx ++ env)) with (3 := H) (4 := Lc) (5 := Ic) (6 := EL) end.
      * intros cx. rewrite !ids_app, He. reflexivity.
      * intros cx. apply m_load.
  - (* Invoke *)
    ub E. ub E. pose proof (vtT _ _ _ _ E0) as Tx. destruct (Nat.leb _ 1); [inversion E; subst; apply m_jump; exact Tx|].
    ub E. inversion E; subst. apply m_add_and_jump; [exact Tx|eapply tag_small; eauto].
  - (* Literal *)
    cbn [lin_check] in LN. cbn [stmt_immG] in IM. sp LN L0 Ln. sp IM I0 In_.
    assert (Hs' : ids (c' ++ [mkb v Ext I64]) = ids (c ++ [mkb v Ext I64])) by (rewrite !ids_app, Hs; reflexivity).
    ub E. ub E. destruct x0 as [c2 lc2]. inversion E; subst.
    apply Qapp; [apply m_load_immediate; [eapply vtT; eauto|exact I0]|eapply (IHs _ _ _ _ _ Hs' Ln In_); eauto].
  - (* Op *)
    cbn [lin_check] in LN. cbn [stmt_immG] in IM. sp LN L0 L1. sp L1 L1 Ln. sp L1 La Lb.
    assert (Hs' : ids (c' ++ [mkb v Ext I64]) = ids (c ++ [mkb v Ext I64])) by (rewrite !ids_app, Hs; reflexivity).
    pose proof (lin_nodup _ _ _ Ln) as NDn. rewrite ids_app in NDn. apply NoDup_remove_2 in NDn. rewrite app_nil_r in NDn.
    cbn [ids map bvar idn] in NDn. rewrite <- Hs in NDn.
    assert (IA : In (idn a) (ids c')) by (rewrite Hs; eapply has_In_ids_; exact La).
    assert (IB : In (idn b) (ids c')) by (rewrite Hs; eapply has_In_ids_; exact Lb).
    ub E. ub E. ub E. ub E. destruct x2 as [c2 lc2]. inversion E; subst.
    apply Qapp; [|eapply (IHs _ _ _ _ _ Hs' Ln IM); eauto].
    apply m_arith; try (eapply vtT; eassumption).
    + exact (vt_fresh_neq c' (mkb v Ext I64) (idn a) _ _ NDn IA E0 E1).
    + exact (vt_fresh_neq c' (mkb v Ext I64) (idn b) _ _ NDn IB E0 E2).
  - (* PrintI64 *)
    cbn [lin_check] in LN. cbn [stmt_immG] in IM. sp LN L0 L1. sp L1 Lv Ln.
    ub E. ub E. destruct x0 as [c2 lc2]. inversion E; subst.
    apply Qapp; [apply m_print; eapply vtT; eauto|eapply (IHs _ _ _ _ _ Hs Ln IM); eauto].
  - (* IfC *)
    cbn [lin_check] in LN. cbn [stmt_immG] in IM. sp LN L0 L1. sp L1 L1 Lel. sp L1 L1 Lth. sp IM It Ie.
    ub E. ub E. ub E. destruct x1 as [c2 lc2]. ub E. destruct x1 as [c3 lc3]. inversion E; subst.
    pose proof (vtT _ _ _ _ E0) as Ta.
    apply Qapp; [|apply Qapp; [eapply (IHs2 _ _ _ _ _ Hs Lel Ie); eauto|
                               apply (Qcons Q Qapp); [apply m_label, L_lab|eapply (IHs1 _ _ _ _ _ Hs Lth It); eauto]]].
    destruct b as [b|]; [ub E1; inversion E1; subst; apply m_jcc2; [exact Ta|eapply vtT; eauto|apply L_lab]
                        |inversion E1; subst; apply m_jcc1; [exact Ta|apply L_lab]].
  - (* Exit *)
    ub E. inversion E; subst. apply Qapp; [apply m_mov; [exact Tret|eapply vtT; eauto]|apply m_jump_label, L_cleanup].
Qed.

Lemma translate_QG : forall defs lc code lc',
  forallb (fun d => lin_check S (dctx d) (dbody d) && stmt_immG sub lit (dbody d)) defs = true ->
  (forall d, In d defs -> L (show_ident (dname d) +++ "_")) ->
  translate B types defs lc = Ok (code, lc') -> Q code.
Proof.
  induction defs as [|d defs IH]; intros lc code lc' G LD H; cbn [translate] in H.
  - inversion H; subst. exact Qnil.
  - cbn [forallb] in G. sp G G1 G2. sp G1 G1 G1'.
    ub H. destruct x as [c1 lc1]. ub H. destruct x as [c2 lc2]. inversion H; subst.
    apply (Qcons Q Qapp); [apply m_label, LD; left; reflexivity|]. apply Qapp.
    + eapply (code_statement_QG _ _ _ _ _ _ eq_refl G1 G1'); eauto.
    + eapply IH; eauto. intros d0 H0. apply LD. right. exact H0.
Qed.
End ForallLinG.

(* x86-64: the bounds of Sem/WfGuard.v, SUBST_MAX checked by the guard *)
Section ForallLin.
Context {Code Temp : Type} (B : backend Code Temp).
Hypothesis OKB : backend_ok B.
Variable S : sigs.
Notation types := (sg_types S).
Variable T : Temp -> Prop.
Variable Q : list Code -> Prop.
Variable L : string -> Prop.
Hypothesis Qnil : Q [].
Hypothesis Qapp : forall a b, Q a -> Q b -> Q (a ++ b).
Hypothesis Ttfp : forall p t, b_temporary_from_position B p = Ok t -> T t.
Hypothesis Ttemp : T (b_temp B).
Hypothesis Tret : T (b_return1 B).
Hypothesis m_label : forall l, L l -> Q [b_label B l].
Hypothesis m_mark : forall c, Q (b_mark B c).
Hypothesis m_jump : forall t, T t -> Q (b_jump B t).
Hypothesis m_jump_label : forall l, L l -> Q (b_jump_label B l).
Hypothesis m_jump_label_fixed : forall l, L l -> Q (b_jump_label_fixed B l).
Hypothesis m_jcc2 : forall s a b l, T a -> T b -> L l -> Q (b_jcc2 B s a b l).
Hypothesis m_jcc1 : forall s a l, T a -> L l -> Q (b_jcc1 B s a l).
Hypothesis m_load_immediate : forall t i, T t -> lit64 i = true -> Q (b_load_immediate B t i).
Hypothesis m_load_tag : forall t k, T t -> (k < XTORS_MAX)%N -> Q (b_load_immediate B t (b_jump_length B k)).
Hypothesis m_load_label : forall t l, T t -> L l -> Q (b_load_label B t l).
Hypothesis m_add_and_jump : forall t k, T t -> (k < XTORS_MAX)%N -> Q (b_add_and_jump B t (b_jump_length B k)).
Hypothesis m_arith : forall o t a b, T t -> T a -> T b -> t <> a -> t <> b -> Q (b_arith B o t a b).
Hypothesis m_arith_table : forall a, T a -> Q (b_arith B Sum (b_temp B) (b_temp B) a).
Hypothesis m_mov : forall t s, T t -> T s -> Q (b_mov B t s).
Hypothesis m_print : forall nl t c, T t -> Q (b_print B nl t c).
Hypothesis m_erase : forall t lc, T t -> Q (fst (b_erase B t lc)).
Hypothesis m_share : forall t n lc, T t -> (n < SUBST_MAX)%N -> Q (fst (b_share_n B t n lc)).
Hypothesis m_store : forall a r lc c lc', b_store B a r lc = Ok (c, lc') -> Q c.
Hypothesis m_load : forall a r lc c lc', b_load B a r lc = Ok (c, lc') -> Q c.
Hypothesis m_store_temporary : forall t f, T t -> Q (b_store_temporary B t f).
Hypothesis m_restore_temporary : forall t f, T t -> Q (b_restore_temporary B t f).
Hypothesis L_lab : forall k, L ("lab" +++ n_to_string k).
Hypothesis L_cleanup : L "cleanup".
Hypothesis L_def : forall l ps, lookup_label S l = Some ps -> L (show_ident l +++ "_").
Hypothesis L_type : forall t xs k, type_xtors S t = Some xs ->
  L (type_label t k) /\ forall x, L (type_label t k +++ "_" +++ x).
Hypothesis X_small : xtors_small types = true.

Lemma sub_small_bound re c' (code : list Code) : sub_small re = true -> NoDup (ids (map fst re)) ->
  code_exchange B (transpose re c') c' (map fst re) = Ok code ->
  forall b tg, In (b, tg) (transpose re c') -> (N.of_nat (List.length tg) <= SUBST_MAX)%N.
Proof. intros I0 _ _ b tg Hb. apply transpose_len in Hb. apply N.leb_le in I0. lia. Qed.

Lemma translate_QL : forall defs lc code lc',
  forallb (fun d => lin_check S (dctx d) (dbody d) && stmt_imm (dbody d)) defs = true ->
  (forall d, In d defs -> L (show_ident (dname d) +++ "_")) ->
  translate B types defs lc = Ok (code, lc') -> Q code.
Proof.
  intros defs lc code lc' G.
  assert (G' : forallb (fun d => lin_check S (dctx d) (dbody d) && stmt_immG sub_small lit64 (dbody d)) defs = true).
  { rewrite forallb_forall in *. intros d Hd. rewrite <- stmt_imm_G. exact (G d Hd). }
  revert G'.
  exact (translate_QG B OKB S SUBST_MAX XTORS_MAX sub_small lit64 T Q L Qnil Qapp Ttfp Ttemp Tret m_label m_mark m_jump
           m_jump_label m_jump_label_fixed m_jcc2 m_jcc1 m_load_immediate m_load_tag m_load_label m_add_and_jump m_arith
           m_arith_table m_mov m_print m_erase m_share m_store m_load m_store_temporary m_restore_temporary
           L_lab L_cleanup L_def L_type X_small sub_small_bound defs lc code lc').
Qed.
End ForallLin.

(* whole programs: S = the signatures of the program itself *)
Lemma lookup_label_def p d : In d (pdefs p) -> exists ps, lookup_label (sigs_of p) (dname d) = Some ps.
Proof.
  intros H. unfold lookup_label, sigs_of. cbn [sg_labels].
  destruct (find (fun q => ident_eqb (fst q) (dname d)) (map (fun d0 => (dname d0, dctx d0)) (pdefs p))) as [q|] eqn:F; [eauto|].
  assert (I : In (dname d, dctx d) (map (fun d0 => (dname d0, dctx d0)) (pdefs p))) by (apply in_map_iff; eauto).
  pose proof (find_none _ _ F _ I) as X. cbn [fst] in X. rewrite (proj2 (ident_eqb_eq _ _) eq_refl) in X. discriminate.
Qed.
