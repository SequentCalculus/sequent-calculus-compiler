(* C15, rejection: single ill-typed edits make the declarative checker [has_type_b] false - for all programs and all
   sites.  A "site" is any occurrence of the edited sub-term anywhere in the body of a definition ([occurs]).
   [reject_site]: a sub-term that is ill-typed in every environment at every type makes the program ill-typed
   (through [chk_occurs_false]); one lemma per class of edit says that its sub-term is such a site (Section Local);
   Props/C15.v instantiates.  Names used where they are not bound: Proof/CheckScope.v. *)
From Coq Require Import List ZArith String Bool Permutation Lia Setoid.
From SCC Require Import Base.Sexp Lang.SynUtil Lang.FunSyn Sem.FunTyping Proof.FunInd.
Import ListNotations.
Open Scope list_scope.

Inductive occurs (s : fterm) : fterm -> Prop :=
| occ_here : occurs s s
| occ_op1 : forall a o b, occurs s a -> occurs s (FOp a o b)
| occ_op2 : forall a o b, occurs s b -> occurs s (FOp a o b)
| occ_if1 : forall so a b th el ty, occurs s a -> occurs s (FIfC so a b th el ty)
| occ_if2 : forall so a b th el ty, occurs s b -> occurs s (FIfC so a (Some b) th el ty)
| occ_if3 : forall so a b th el ty, occurs s th -> occurs s (FIfC so a b th el ty)
| occ_if4 : forall so a b th el ty, occurs s el -> occurs s (FIfC so a b th el ty)
| occ_print1 : forall nl a n ty, occurs s a -> occurs s (FPrint nl a n ty)
| occ_print2 : forall nl a n ty, occurs s n -> occurs s (FPrint nl a n ty)
| occ_let1 : forall v vty a b ty, occurs s a -> occurs s (FLet v vty a b ty)
| occ_let2 : forall v vty a b ty, occurs s b -> occurs s (FLet v vty a b ty)
| occ_call : forall f args r a, In a args -> occurs s a -> occurs s (FCall f args r)
| occ_ctor : forall x args r a, In a args -> occurs s a -> occurs s (FCtor x args r)
| occ_dtor1 : forall sc x targs args r, occurs s sc -> occurs s (FDtor sc x targs args r)
| occ_dtor2 : forall sc x targs args r a, In a args -> occurs s a -> occurs s (FDtor sc x targs args r)
| occ_case1 : forall sc targs cls r, occurs s sc -> occurs s (FCase sc targs cls r)
| occ_case2 : forall sc targs cls r c, In c cls -> occurs s (clause_body c) -> occurs s (FCase sc targs cls r)
| occ_new : forall cls r c, In c cls -> occurs s (clause_body c) -> occurs s (FNew cls r)
| occ_label : forall l t r, occurs s t -> occurs s (FLabel l t r)
| occ_goto : forall l t r, occurs s t -> occurs s (FGoto l t r)
| occ_exit : forall a r, occurs s a -> occurs s (FExit a r)
| occ_paren : forall t, occurs s t -> occurs s (FParen t).

Definition is_var (t : fterm) : bool := match t with FVar _ _ _ => true | _ => false end.

Lemma occurs_var_inv : forall s v a c, occurs s (FVar v a c) -> s = FVar v a c.
Proof. intros s v a c H. inversion H; reflexivity. Qed.
Lemma occurs_not_var : forall s t, occurs s t -> is_var s = false -> is_var t = false.
Proof.
  intros s t H Hs. destruct t; try reflexivity.
  apply occurs_var_inv in H. subst. exact Hs.
Qed.

(* names bound inside a term: let variables, labels, clause binders *)
Fixpoint binders (t : fterm) : list fname :=
  let bl := fix go (l : list fterm) : list fname := match l with [] => [] | a :: r => binders a ++ go r end in
  let bc := fix go (l : list fclause) : list fname :=
    match l with [] => [] | FClause _ _ ns _ b :: r => ns ++ binders b ++ go r end in
  match t with
  | FVar _ _ _ | FLit _ => []
  | FOp a _ b => binders a ++ binders b
  | FIfC _ a b th el _ => binders a ++ match b with Some b' => binders b' | None => [] end ++ binders th ++ binders el
  | FPrint _ a n _ => binders a ++ binders n
  | FLet v _ a b _ => v :: binders a ++ binders b
  | FCall _ args _ | FCtor _ args _ => bl args
  | FDtor s _ _ args _ => binders s ++ bl args
  | FCase s _ cls _ => binders s ++ bc cls
  | FNew cls _ => bc cls
  | FLabel l t _ => l :: binders t
  | FGoto _ t _ | FExit t _ | FParen t => binders t
  end.
Definition binders_list (l : list fterm) : list fname := flat_map binders l.
Definition binders_clause (c : fclause) : list fname :=
  match c with FClause _ _ ns _ b => ns ++ binders b end.
Definition binders_clauses (l : list fclause) : list fname := flat_map binders_clause l.
Lemma binders_list_eq : forall l,
  (fix go (l : list fterm) : list fname := match l with [] => [] | a :: r => binders a ++ go r end) l = binders_list l.
Proof. induction l; simpl; [reflexivity|]. rewrite IHl. reflexivity. Qed.
Lemma binders_clauses_eq : forall l,
  (fix go (l : list fclause) : list fname :=
     match l with [] => [] | FClause _ _ ns _ b :: r => ns ++ binders b ++ go r end) l = binders_clauses l.
Proof. induction l as [|[? ? ? ? ?] r IH]; simpl; [reflexivity|]. rewrite IH, app_assoc. reflexivity. Qed.
Lemma in_binders_list : forall x a l, In a l -> In x (binders a) -> In x (binders_list l).
Proof. intros x a l Hin Hx. unfold binders_list. apply in_flat_map. exists a. auto. Qed.
Lemma in_binders_clauses : forall x c l, In c l -> In x (binders_clause c) -> In x (binders_clauses l).
Proof. intros x c l Hin Hx. unfold binders_clauses. apply in_flat_map. exists c. auto. Qed.

Lemma andb_false_any : forall a b, a = false \/ b = false -> a && b = false.
Proof. intros a b [H|H]; subst; [reflexivity|apply andb_false_r]. Qed.

Section Reject.
  Variable ts : list tdecl.
  Variable fs : list fdef.
  Notation chk := (chk ts fs).

  Lemma chk_args_in_false : forall a, (forall G T, chk G a T = false) -> is_var a = false ->
    forall G ps targs args sg, In a args -> chk_args_with chk G ps targs args sg = false.
  Proof.
    intros a Hf Hv G ps targs args. induction args as [|x xr IH]; intros sg Hin; [destruct Hin|].
    destruct sg as [|b br]; [reflexivity|]. simpl.
    destruct Hin as [->|Hin].
    - apply andb_false_any. left. destruct (fbchi b); [apply Hf|].
      destruct a; try reflexivity. discriminate Hv.
    - apply andb_false_any. right. apply IH; auto.
  Qed.

  Lemma chk_clauses_in_false : forall c G td targs T cls,
    (forall G T, chk G (clause_body c) T = false) ->
    In c cls -> chk_clauses_with chk G td targs T cls = false.
  Proof.
    intros c G td targs T cls Hf. induction cls as [|d r IH]; intros Hin; [destruct Hin|].
    simpl. destruct d as [p x xs cx body].
    destruct Hin as [<-|Hin].
    - apply andb_false_any. left. simpl in Hf.
      destruct (find_xsig td x) as [sg|]; [|reflexivity].
      apply andb_false_any. right.
      destruct T as [T|]; [apply Hf|]. destruct (xs_ret sg); [apply Hf|reflexivity].
    - apply andb_false_any. right. apply IH. assumption.
  Qed.

  Theorem chk_occurs_false : forall s, is_var s = false -> (forall G T, chk G s T = false) ->
    forall t, occurs s t -> forall G T, chk G t T = false.
  Proof.
    intros s Hv Hs t Hocc. induction Hocc; intros G T; try solve [apply Hs]; simpl.
    - rewrite IHHocc. apply andb_false_any. left. apply andb_false_r.
    - rewrite IHHocc. apply andb_false_r.
    - rewrite IHHocc. reflexivity.
    - rewrite IHHocc. apply andb_false_any. left. apply andb_false_any. left. apply andb_false_r.
    - rewrite IHHocc. apply andb_false_any. left. apply andb_false_r.
    - rewrite IHHocc. apply andb_false_r.
    - rewrite IHHocc. reflexivity.
    - rewrite IHHocc. apply andb_false_r.
    - rewrite IHHocc. apply andb_false_any. left. apply andb_false_r.
    - rewrite IHHocc. apply andb_false_r.
    - destruct (find_def fs f) as [d|]; [|reflexivity].
      apply andb_false_any. right. eapply chk_args_in_false; eauto using occurs_not_var.
    - destruct T as [|n targs]; [reflexivity|]. destruct (find_type ts n) as [td|]; [|reflexivity].
      apply andb_false_any. right. destruct (find_xsig td x); [|reflexivity].
      eapply chk_args_in_false; eauto using occurs_not_var.
    - destruct (find_xtor ts FCodata x) as [[td sg]|]; [|reflexivity].
      rewrite IHHocc. apply andb_false_any. left. apply andb_false_any. left. apply andb_false_r.
    - destruct (find_xtor ts FCodata x) as [[td sg]|]; [|reflexivity].
      apply andb_false_any. left. apply andb_false_any. right.
      eapply chk_args_in_false; eauto using occurs_not_var.
    - destruct cls as [|c0 cr]; [reflexivity|].
      destruct (find_xtor ts FData (clause_xtor c0)) as [[td sg]|]; [|reflexivity].
      rewrite IHHocc. apply andb_false_any. left. apply andb_false_any. left. apply andb_false_r.
    - destruct cls as [|c0 cr]; [destruct H|].
      destruct (find_xtor ts FData (clause_xtor c0)) as [[td sg]|]; [|reflexivity].
      apply andb_false_any. right. eapply chk_clauses_in_false; eauto.
    - destruct T as [|n targs]; [reflexivity|]. destruct (find_type ts n) as [td|]; [|reflexivity].
      apply andb_false_any. right. eapply chk_clauses_in_false; eauto.
    - apply IHHocc.
    - destruct (cns_ty G l); [apply IHHocc|reflexivity].
    - apply IHHocc.
    - apply IHHocc.
  Qed.

  Lemma extend_none : forall (G : env) x y c t, G x = None -> y <> x -> extend G y c t x = None.
  Proof.
    intros G x y c t H Hn. unfold extend. destruct (String.eqb x y) eqn:E; [|assumption].
    apply String.eqb_eq in E. congruence.
  Qed.
  Lemma extend_sig_none : forall ps targs xs sg (G : env) x, G x = None -> ~ In x xs -> extend_sig G ps targs xs sg x = None.
  Proof.
    induction xs as [|y yr IH]; intros sg G x H Hn; simpl; [assumption|].
    destruct sg as [|b br]; [assumption|].
    apply IH; [|intro; apply Hn; right; assumption].
    apply extend_none; [assumption|]. intro; apply Hn; left; assumption.
  Qed.

  Lemma chk_var_unbound : forall (G : env) x a c T, G x = None -> chk G (FVar x a c) T = false.
  Proof. intros G x a c T H. simpl. unfold is_prd. rewrite H. reflexivity. Qed.

  Lemma chk_args_unbound : forall x a0 G ps targs args sg,
    G x = None -> In a0 args ->
    (forall T, chk G a0 T = false) ->
    (is_var a0 = false \/ exists a c, a0 = FVar x a c) ->
    chk_args_with chk G ps targs args sg = false.
  Proof.
    intros x a0 G ps targs args. induction args as [|y yr IH]; intros sg HG Hin Hf Hv; [destruct Hin|].
    destruct sg as [|b br]; [reflexivity|]. simpl.
    destruct Hin as [->|Hin].
    - apply andb_false_any. left. destruct (fbchi b); [apply Hf|].
      destruct Hv as [Hv|[a [c ->]]].
      + destruct a0; try reflexivity. discriminate Hv.
      + unfold is_cns. rewrite HG. reflexivity.
    - apply andb_false_any. right. apply IH; auto.
  Qed.
End Reject.

Lemma forallb_false_in : forall {X} (f : X -> bool) l x, In x l -> f x = false -> forallb f l = false.
Proof.
  intros X f l x Hin Hf. destruct (forallb f l) eqn:E; [|reflexivity].
  rewrite forallb_forall in E. rewrite (E x Hin) in Hf. discriminate.
Qed.

Lemma has_type_b_def_false : forall p d,
  In d (fdefs (fpdecls p)) ->
  chk (tdecls (fpdecls p)) (fdefs (fpdecls p)) (env_of_ctx env_empty (fdctx d)) (fdbody d) (fdret d) = false ->
  has_type_b p = false.
Proof.
  intros p d Hin Hf. unfold has_type_b. apply andb_false_any. right.
  eapply forallb_false_in; [eassumption|]. unfold def_ok. rewrite Hf. apply andb_false_r.
Qed.

Lemma env_of_ctx_none : forall c (G : env) x, G x = None -> ~ In x (map fbvar c) -> env_of_ctx G c x = None.
Proof.
  induction c as [|b r IH]; intros G x HG Hn; simpl; [assumption|].
  apply IH; [|intro; apply Hn; right; assumption].
  unfold extend. destruct (String.eqb x (fbvar b)) eqn:E; [|assumption].
  apply String.eqb_eq in E. exfalso. apply Hn. left. symmetry. assumption.
Qed.

(* a program with a definition whose body contains, anywhere, a non-variable term that is ill-typed
   in every environment at every type, is ill-typed *)
Theorem reject_site : forall p d s,
  In d (fdefs (fpdecls p)) -> occurs s (fdbody d) -> is_var s = false ->
  (forall G T, chk (tdecls (fpdecls p)) (fdefs (fpdecls p)) G s T = false) ->
  has_type_b p = false.
Proof.
  intros p d s Hin Hocc Hv Hs. eapply has_type_b_def_false; [eassumption|].
  eapply chk_occurs_false; eassumption.
Qed.

Section Local.
  Variable ts : list tdecl.
  Variable fs : list fdef.
  Notation chk := (chk ts fs).

  Lemma chk_args_length : forall G ps targs args sg,
    chk_args_with chk G ps targs args sg = true -> List.length args = List.length sg.
  Proof.
    intros G ps targs args. induction args as [|a r IH]; intros sg H; destruct sg as [|b br]; simpl in *;
      try reflexivity; try discriminate.
    apply andb_true_iff in H. destruct H as [_ H]. f_equal. apply IH. assumption.
  Qed.
  Lemma chk_args_length_false : forall G ps targs args sg,
    List.length args <> List.length sg -> chk_args_with chk G ps targs args sg = false.
  Proof.
    intros. destruct (chk_args_with chk G ps targs args sg) eqn:E; [|reflexivity].
    apply chk_args_length in E. contradiction.
  Qed.

  Lemma find_type_in : forall n td, find_type ts n = Some td -> In td ts.
  Proof. intros n td H. unfold find_type in H. apply find_some in H. tauto. Qed.
  Lemma find_xtor_in : forall pol x td sg, find_xtor ts pol x = Some (td, sg) ->
    In td ts /\ td_pol td = pol /\ find_xsig td x = Some sg.
  Proof.
    intros pol x td sg H. unfold find_xtor in H.
    destruct (find (fun t => fpol_eqb (td_pol t) pol && is_some (find_xsig t x)) ts) as [t|] eqn:E; [|discriminate].
    destruct (find_xsig t x) as [s|] eqn:Es; [|discriminate]. inversion H; subst.
    apply find_some in E. destruct E as [Hin Hb]. apply andb_true_iff in Hb. destruct Hb as [Hp _].
    repeat split; try assumption. destruct (td_pol td), pol; simpl in Hp; congruence.
  Qed.

  Lemma call_arg_count : forall f args r,
    (forall d, find_def fs f = Some d -> List.length args <> List.length (fdctx d)) ->
    forall G T, chk G (FCall f args r) T = false.
  Proof.
    intros f args r H G T. simpl. destruct (find_def fs f) as [d|] eqn:E; [|reflexivity].
    apply andb_false_any. right. apply chk_args_length_false. auto.
  Qed.
  Lemma ctor_arg_count : forall k args r,
    (forall td sg, In td ts -> find_xsig td k = Some sg -> List.length args <> List.length (xs_args sg)) ->
    forall G T, chk G (FCtor k args r) T = false.
  Proof.
    intros k args r H G T. simpl. destruct T as [|n targs]; [reflexivity|].
    destruct (find_type ts n) as [td|] eqn:E; [|reflexivity].
    apply andb_false_any. right. destruct (find_xsig td k) as [sg|] eqn:Es; [|reflexivity].
    apply chk_args_length_false. eapply H; eauto using find_type_in.
  Qed.
  Lemma dtor_arg_count : forall s k targs args r,
    (forall td sg, In td ts -> find_xsig td k = Some sg -> List.length args <> List.length (xs_args sg)) ->
    forall G T, chk G (FDtor s k targs args r) T = false.
  Proof.
    intros s k targs args r H G T. simpl.
    destruct (find_xtor ts FCodata k) as [[td sg]|] eqn:E; [|reflexivity].
    apply find_xtor_in in E. destruct E as [Hin [_ Hs]].
    apply andb_false_any. left. apply andb_false_any. right.
    apply chk_args_length_false. eapply H; eauto.
  Qed.

  Lemma call_unknown : forall f args r, find_def fs f = None -> forall G T, chk G (FCall f args r) T = false.
  Proof. intros f args r H G T. simpl. rewrite H. reflexivity. Qed.
  Lemma ctor_unknown : forall k args r, (forall td, In td ts -> find_xsig td k = None) ->
    forall G T, chk G (FCtor k args r) T = false.
  Proof.
    intros k args r H G T. simpl. destruct T as [|n targs]; [reflexivity|].
    destruct (find_type ts n) as [td|] eqn:E; [|reflexivity].
    rewrite (H td (find_type_in _ _ E)). apply andb_false_r.
  Qed.
  Lemma dtor_unknown : forall s k targs args r, (forall td, In td ts -> find_xsig td k = None) ->
    forall G T, chk G (FDtor s k targs args r) T = false.
  Proof.
    intros s k targs args r H G T. simpl.
    destruct (find_xtor ts FCodata k) as [[td sg]|] eqn:E; [|reflexivity].
    apply find_xtor_in in E. destruct E as [Hin [_ Hs]]. rewrite (H td Hin) in Hs. discriminate.
  Qed.

  Lemma dtor_type_arg_count : forall s k targs args r,
    (forall td sg, In td ts -> find_xsig td k = Some sg -> List.length targs <> List.length (td_params td)) ->
    forall G T, chk G (FDtor s k targs args r) T = false.
  Proof.
    intros s k targs args r H G T. simpl.
    destruct (find_xtor ts FCodata k) as [[td sg]|] eqn:E; [|reflexivity].
    apply find_xtor_in in E. destruct E as [Hin [_ Hs]].
    destruct (Nat.eqb (List.length targs) (List.length (td_params td))) eqn:El; [|reflexivity].
    apply PeanoNat.Nat.eqb_eq in El. exfalso. eapply H; eauto.
  Qed.
  Lemma case_type_arg_count : forall s targs c0 cls r,
    (forall td sg, In td ts -> find_xsig td (clause_xtor c0) = Some sg -> List.length targs <> List.length (td_params td)) ->
    forall G T, chk G (FCase s targs (c0 :: cls) r) T = false.
  Proof.
    intros s targs c0 cls r H G T. simpl.
    destruct (find_xtor ts FData (clause_xtor c0)) as [[td sg]|] eqn:E; [|reflexivity].
    apply find_xtor_in in E. destruct E as [Hin [_ Hs]].
    destruct (Nat.eqb (List.length targs) (List.length (td_params td))) eqn:El; [|reflexivity].
    apply PeanoNat.Nat.eqb_eq in El. exfalso. eapply H; eauto.
  Qed.

  Lemma mem_In : forall x l, mem x l = true <-> In x l.
  Proof.
    intros x l. unfold mem. rewrite existsb_exists. split.
    - intros [y [Hin E]]. apply String.eqb_eq in E. subst. assumption.
    - intros H. exists x. split; [assumption|apply String.eqb_refl].
  Qed.
  Lemma nodup_NoDup : forall l, nodup l = true -> NoDup l.
  Proof.
    induction l as [|x r IH]; simpl; intros H; [constructor|].
    apply andb_true_iff in H. destruct H as [Hm Hn]. constructor; [|auto].
    intro Hin. apply mem_In in Hin. rewrite Hin in Hm. discriminate.
  Qed.
  Lemma nodup_dup_false : forall x l1 l2 l3, nodup (l1 ++ x :: l2 ++ x :: l3) = false.
  Proof.
    intros x l1 l2 l3. destruct (nodup (l1 ++ x :: l2 ++ x :: l3)) eqn:E; [|reflexivity].
    apply nodup_NoDup in E. apply NoDup_remove_2 in E. exfalso. apply E.
    apply in_or_app. right. apply in_or_app. right. left. reflexivity.
  Qed.
  (* same_names l k: every name of k occurs in l *)
  Lemma same_names_covers : forall l k, same_names l k = true -> forall x, In x k -> In x l.
  Proof.
    intros l k H x Hx. unfold same_names in H.
    apply andb_true_iff in H. destruct H as [H Hsub]. apply andb_true_iff in H. destruct H as [Hnd Hlen].
    apply PeanoNat.Nat.eqb_eq in Hlen. apply nodup_NoDup in Hnd.
    assert (Hi : incl k l).
    { apply NoDup_length_incl; [exact Hnd|lia|].
      intros y Hy. rewrite forallb_forall in Hsub. apply mem_In. auto. }
    apply Hi. exact Hx.
  Qed.
  Lemma same_names_incl : forall l k, same_names l k = true -> forall x, In x l -> In x k.
  Proof.
    intros l k H x Hx. unfold same_names in H. apply andb_true_iff in H. destruct H as [_ Hsub].
    rewrite forallb_forall in Hsub. apply mem_In. auto.
  Qed.

  (* missing clause: some constructor of the matched type has no clause *)
  Lemma case_missing_clause : forall s targs c0 cls r,
    (forall td sg, find_xtor ts FData (clause_xtor c0) = Some (td, sg) ->
       exists k, In k (map xs_name (td_xtors td)) /\ ~ In k (map clause_xtor (c0 :: cls))) ->
    forall G T, chk G (FCase s targs (c0 :: cls) r) T = false.
  Proof.
    intros s targs c0 cls r H G T. simpl.
    destruct (find_xtor ts FData (clause_xtor c0)) as [[td sg]|] eqn:E; [|reflexivity].
    destruct (H td sg eq_refl) as [k [Hk Hn]].
    apply andb_false_any. left. apply andb_false_any. right.
    destruct (same_names (clause_xtor c0 :: map clause_xtor cls) (map xs_name (td_xtors td))) eqn:Es; [|reflexivity].
    exfalso. apply Hn. eapply same_names_covers; eassumption.
  Qed.
  Lemma case_empty : forall s targs r G T, chk G (FCase s targs [] r) T = false.
  Proof. reflexivity. Qed.
  (* a missing clause in a new, at the type it is checked against *)
  Lemma new_missing_clause : forall cls r n targs td k,
    find_type ts n = Some td -> In k (map xs_name (td_xtors td)) -> ~ In k (map clause_xtor cls) ->
    forall G, chk G (FNew cls r) (FDecl n targs) = false.
  Proof.
    intros cls r n targs td k Ht Hk Hn G. simpl. rewrite Ht.
    apply andb_false_any. left. apply andb_false_any. right.
    destruct (same_names (map clause_xtor cls) (map xs_name (td_xtors td))) eqn:Es; [|reflexivity].
    exfalso. apply Hn. eapply same_names_covers; eassumption.
  Qed.

  (* duplicated clause (any case / new with two clauses for the same xtor) *)
  Lemma same_names_dup_false : forall x l1 l2 l3 k, same_names (l1 ++ x :: l2 ++ x :: l3) k = false.
  Proof. intros. unfold same_names. rewrite nodup_dup_false. reflexivity. Qed.
  Lemma case_dup_clause : forall s targs cls r x l1 l2 l3,
    map clause_xtor cls = l1 ++ x :: l2 ++ x :: l3 -> forall G T, chk G (FCase s targs cls r) T = false.
  Proof.
    intros s targs cls r x l1 l2 l3 Hd G T. simpl. destruct cls as [|c0 cr]; [reflexivity|].
    destruct (find_xtor ts FData (clause_xtor c0)) as [[td sg]|]; [|reflexivity].
    apply andb_false_any. left. apply andb_false_any. right.
    change (clause_xtor c0 :: map clause_xtor cr) with (map clause_xtor (c0 :: cr)).
    rewrite Hd. apply same_names_dup_false.
  Qed.
  Lemma new_dup_clause : forall cls r x l1 l2 l3,
    map clause_xtor cls = l1 ++ x :: l2 ++ x :: l3 -> forall G T, chk G (FNew cls r) T = false.
  Proof.
    intros cls r x l1 l2 l3 Hd G T. simpl. destruct T as [|n targs]; [reflexivity|].
    destruct (find_type ts n) as [td|]; [|reflexivity].
    apply andb_false_any. left. apply andb_false_any. right. rewrite Hd. apply same_names_dup_false.
  Qed.

  (* extra clause: a clause for an xtor the type does not have *)
  Lemma case_extra_clause : forall s targs c0 cls r c,
    In c (c0 :: cls) ->
    (forall td sg, find_xtor ts FData (clause_xtor c0) = Some (td, sg) -> ~ In (clause_xtor c) (map xs_name (td_xtors td))) ->
    forall G T, chk G (FCase s targs (c0 :: cls) r) T = false.
  Proof.
    intros s targs c0 cls r c Hin H G T. simpl.
    destruct (find_xtor ts FData (clause_xtor c0)) as [[td sg]|] eqn:E; [|reflexivity].
    apply andb_false_any. left. apply andb_false_any. right.
    destruct (same_names (clause_xtor c0 :: map clause_xtor cls) (map xs_name (td_xtors td))) eqn:Es; [|reflexivity].
    exfalso. eapply H; [reflexivity|]. eapply same_names_incl; [eassumption|].
    change (clause_xtor c0 :: map clause_xtor cls) with (map clause_xtor (c0 :: cls)). apply in_map. assumption.
  Qed.
  Lemma new_extra_clause : forall cls r c n targs td,
    In c cls -> find_type ts n = Some td -> ~ In (clause_xtor c) (map xs_name (td_xtors td)) ->
    forall G, chk G (FNew cls r) (FDecl n targs) = false.
  Proof.
    intros cls r c n targs td Hin Ht Hn G. simpl. rewrite Ht.
    apply andb_false_any. left. apply andb_false_any. right.
    destruct (same_names (map clause_xtor cls) (map xs_name (td_xtors td))) eqn:Es; [|reflexivity].
    exfalso. apply Hn. eapply same_names_incl; [eassumption|]. apply in_map. assumption.
  Qed.

  (* wrong number of binders in a clause *)
  Lemma chk_clauses_binder_count : forall G td targs T cls p x xs cx body,
    In (FClause p x xs cx body) cls ->
    (forall sg, find_xsig td x = Some sg -> List.length xs <> List.length (xs_args sg)) ->
    chk_clauses_with chk G td targs T cls = false.
  Proof.
    intros G td targs T cls p x xs cx body Hin H. induction cls as [|c r IH]; [destruct Hin|].
    simpl. destruct Hin as [->|Hin].
    - apply andb_false_any. left. destruct (find_xsig td x) as [sg|] eqn:E; [|reflexivity].
      apply andb_false_any. left. apply andb_false_any. right.
      apply PeanoNat.Nat.eqb_neq. auto.
    - destruct c. apply andb_false_any. right. auto.
  Qed.
  Lemma case_binder_count : forall s targs c0 cls r p x xs cx body,
    In (FClause p x xs cx body) (c0 :: cls) ->
    (forall td sg, In td ts -> find_xsig td x = Some sg -> List.length xs <> List.length (xs_args sg)) ->
    forall G T, chk G (FCase s targs (c0 :: cls) r) T = false.
  Proof.
    intros s targs c0 cls r p x xs cx body Hin H G T. simpl.
    destruct (find_xtor ts FData (clause_xtor c0)) as [[td sg]|] eqn:E; [|reflexivity].
    apply find_xtor_in in E. destruct E as [Htd _].
    apply andb_false_any. right.
    apply (chk_clauses_binder_count G td targs (Some T) (c0 :: cls) p x xs cx body Hin).
    intros; eapply H; eauto.
  Qed.
  Lemma new_binder_count : forall cls r p x xs cx body,
    In (FClause p x xs cx body) cls ->
    (forall td sg, In td ts -> find_xsig td x = Some sg -> List.length xs <> List.length (xs_args sg)) ->
    forall G T, chk G (FNew cls r) T = false.
  Proof.
    intros cls r p x xs cx body Hin H G T. simpl. destruct T as [|n targs]; [reflexivity|].
    destruct (find_type ts n) as [td|] eqn:E; [|reflexivity].
    apply andb_false_any. right.
    eapply chk_clauses_binder_count; [eassumption|]. intros; eapply H; eauto using find_type_in.
  Qed.

  (* producer used as consumer / consumer used as producer, at the environment of the site *)
  Lemma goto_producer : forall (G : env) x S t r T, G x = Some (FPrd, S) -> chk G (FGoto x t r) T = false.
  Proof. intros G x S t r T H. simpl. unfold cns_ty. rewrite H. reflexivity. Qed.
  Lemma var_consumer : forall (G : env) x S a c T, G x = Some (FCns, S) -> chk G (FVar x a c) T = false.
  Proof. intros G x S a c T H. simpl. unfold is_prd. rewrite H. reflexivity. Qed.
  (* wrong argument / literal type *)
  Lemma lit_at_declared_type : forall G n m targs, chk G (FLit n) (FDecl m targs) = false.
  Proof. reflexivity. Qed.
  Lemma ctor_at_i64 : forall G k args r, chk G (FCtor k args r) FI64 = false.
  Proof. reflexivity. Qed.
  Lemma new_at_i64 : forall G cls r, chk G (FNew cls r) FI64 = false.
  Proof. reflexivity. Qed.
End Local.








Lemma tdecls_app : forall a b, tdecls (a ++ b) = tdecls a ++ tdecls b.
Proof. induction a as [|d r IH]; intros b; simpl; [reflexivity|]. destruct (tdecl_of d); simpl; rewrite IH; reflexivity. Qed.
Lemma fdefs_app : forall a b, fdefs (a ++ b) = fdefs a ++ fdefs b.
Proof. induction a as [|d r IH]; intros b; simpl; [reflexivity|]. destruct d; simpl; rewrite IH; reflexivity. Qed.

Definition decl_name (d : fdecl) : fname :=
  match d with FDData d => fdaname d | FDCodata d => fcoaname d | FDDef d => fdname d end.
Definition same_kind (a b : fdecl) : bool :=
  match a, b with
  | FDDef _, FDDef _ => true
  | FDDef _, _ | _, FDDef _ => false
  | _, _ => true
  end.

(* two definitions with the same name, or two type declarations (data or codata) with the same
   name, anywhere in the program *)
Theorem reject_duplicate_declaration : forall l1 d l2 d' l3,
  same_kind d d' = true -> decl_name d = decl_name d' ->
  has_type_b (mkfprog (l1 ++ d :: l2 ++ d' :: l3)) = false.
Proof.
  intros l1 d l2 d' l3 Hk Hn. unfold has_type_b. simpl.
  apply andb_false_any. left. apply andb_false_any. left.
  unfold names_ok.
  rewrite !tdecls_app, !fdefs_app. simpl. rewrite !tdecls_app, !fdefs_app. simpl.
  destruct d as [a|a|a], d' as [b|b|b]; simpl in Hk; try discriminate; simpl in Hn; simpl;
    rewrite ?map_app; simpl; rewrite ?map_app; simpl; rewrite Hn.
  1-4: (apply andb_false_any; left; apply andb_false_any; left; apply andb_false_any; left;
        apply nodup_dup_false).
  apply andb_false_any. right. apply nodup_dup_false.
Qed.
(* in particular: appending a copy of any declaration *)
Corollary reject_duplicated_declaration_copy : forall l1 d l2,
  has_type_b (mkfprog (l1 ++ d :: l2 ++ [d])) = false.
Proof. intros. apply reject_duplicate_declaration; [destruct d; reflexivity|reflexivity]. Qed.

(* duplicate constructor within one data type *)
Theorem reject_duplicate_constructor : forall l1 n ps c1 k sg1 c2 sg2 c3 l2,
  has_type_b (mkfprog (l1 ++ FDData (mkfdata n ps (c1 ++ mkfctor k sg1 :: c2 ++ mkfctor k sg2 :: c3)) :: l2)) = false.
Proof.
  intros. unfold has_type_b. simpl. apply andb_false_any. left. apply andb_false_any. left.
  unfold names_ok. rewrite tdecls_app. simpl.
  apply andb_false_any. left. apply andb_false_any. left. apply andb_false_any. right.
  unfold xtor_names. rewrite flat_map_app. simpl.
  rewrite !map_app. simpl. rewrite !map_app. simpl.
  rewrite <- !app_assoc. simpl. rewrite <- !app_assoc. simpl.
  rewrite app_assoc. apply nodup_dup_false.
Qed.
