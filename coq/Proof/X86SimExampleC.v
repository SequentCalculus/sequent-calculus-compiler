(* C06: a concrete program of the closure fragment (the shape the pipeline produces for a tail-recursive
   integer function: `main` creates the return continuation and calls `f`, which loops and finally invokes
   the continuation; plus a closure of a codata type with two destructors, entered through its jump
   table), on which every hypothesis of x86_codegen_simulates_cf is evaluated and both sides computed. *)
From Coq Require Import List ZArith NArith String Bool.
From SCC Require Import Base.Sexp Lang.AxSyn Sem.AxSem Model.Backend Model.X86 Sem.X86Sem Sem.X86Wf
     Model.Linearize Model.LinCheck Proof.X86SimRel Proof.X86SimAddr Proof.X86SimClo Proof.X86SimProg Proof.X86SimProgC
     Proof.X86SimTop Proof.X86SimTopC Proof.X86SimExample.
Import ListNotations.
Open Scope string_scope.
Open Scope Z_scope.

Definition cb (s : string) (n : N) (t : string) : binding := mkb (id_ s n) Cns (Decl (id_ t 0)).
Definition t_cont : tydecl := mkt (id_ "_Cont" 0) [mkx (id_ "Ret" 0) [ib "x" 0]].
Definition t_two : tydecl := mkt (id_ "Two" 0) [mkx (id_ "A" 0) [ib "x" 0]; mkx (id_ "B" 0) [ib "y" 0; ib "z" 0]].

Definition exc_main : def :=
  mkd (id_ "main" 0) [ib "x" 1]
    (Literal 0 (id_ "acc" 6)
    (Create (id_ "a" 7) (Decl (id_ "_Cont" 0)) (Some [])
       [(id_ "Ret" 0, [ib "r" 2], PrintI64 true (id_ "r" 2) (Exit (id_ "r" 2)))]
    (Create (id_ "t" 8) (Decl (id_ "Two" 0)) (Some [])
       [(id_ "A" 0, [ib "p" 9], Exit (id_ "p" 9));
        (id_ "B" 0, [ib "q" 10; ib "r" 11], Op (id_ "q" 10) Prod (id_ "r" 11) (id_ "s" 12) (Exit (id_ "s" 12)))]
    (IfC Lt (id_ "x" 1) None
       (Literal 7 (id_ "k" 9)
       (Substitute [(ib "q" 10, id_ "x" 1); (ib "r" 11, id_ "k" 9); (cb "t" 8 "Two", id_ "t" 8)]
          (Invoke (id_ "t" 8) (id_ "B" 0) (Decl (id_ "Two" 0)) [])))
       (Substitute [(ib "x" 3, id_ "x" 1); (ib "acc" 4, id_ "acc" 6); (cb "a0" 5 "_Cont", id_ "a" 7); (cb "t0" 6 "Two", id_ "t" 8)]
          (Call (id_ "f" 0) [])))))).
Definition exc_f : def :=
  mkd (id_ "f" 0) [ib "x" 3; ib "acc" 4; cb "a0" 5 "_Cont"; cb "t0" 6 "Two"]
    (IfC Eq (id_ "x" 3) None
       (Substitute [(ib "acc" 4, id_ "acc" 4); (cb "a0" 5 "_Cont", id_ "a0" 5)]
          (Invoke (id_ "a0" 5) (id_ "Ret" 0) (Decl (id_ "_Cont" 0)) []))
       (Literal 1 (id_ "one" 8)
       (Op (id_ "x" 3) Sub (id_ "one" 8) (id_ "x" 9)
       (Op (id_ "acc" 4) Sum (id_ "x" 3) (id_ "y" 10)
       (PrintI64 false (id_ "y" 10)
       (Substitute [(ib "x" 3, id_ "x" 9); (ib "acc" 4, id_ "y" 10); (cb "a0" 5 "_Cont", id_ "a0" 5); (cb "t0" 6 "Two", id_ "t0" 6)]
          (Call (id_ "f" 0) []))))))).
Definition exc_prog : prog := mkp [exc_main; exc_f] [t_cont; t_two] 20.

Definition exc_code : list xcode :=
  match x86_compile exc_prog 0 with Ok (cs, _, _) => cs | Err _ => [] end.

Lemma exc_hypotheses :
  cf_frag exc_prog = true /\ entry_int exc_prog = true /\ plain_names exc_prog = true /\ plain_types exc_prog = true /\
  lin_check_prog exc_prog = true /\
  (exists n lc', x86_compile exc_prog 0 = Ok (exc_code, n, lc')) /\ asm_wf exc_code = None /\ code_small exc_code = true.
Proof. repeat apply conj; try (vm_compute; reflexivity). eexists _, _. vm_compute. reflexivity. Qed.

(* x = 4: f sums 4+3+2+1, printing the partial sums, then returns 10 through the continuation, which prints it;
   x = -3: the closure t is invoked at its second destructor through the jump table: -3 * 7 *)
Lemma exc_runs :
  run_linear 60 exc_prog [4] = ([(false, 4); (false, 7); (false, 9); (false, 10); (true, 10)], OExit 10) /\
  fst (run_x86 10 2000 exc_code [4]) = ([(false, 4); (false, 7); (false, 9); (false, 10); (true, 10)], OExit 10) /\
  run_linear 60 exc_prog [-3] = ([], OExit (-21)) /\
  fst (run_x86 10 2000 exc_code [-3]) = ([], OExit (-21)).
Proof. repeat apply conj; vm_compute; reflexivity. Qed.

(* an AxCut program BEFORE linearization of the shape `shrink` produces for
     def f(x, acc) { if x == 0 { acc } else { f(x - 1, acc + x) } }   def main(x) { f(x, 0) }
   (main creates the return continuation and passes it; f invokes it); the model of the linearizer inserts the
   substitutions and the (empty) closure environment, and its output meets every x86-side hypothesis of
   C01_compile_correct_cf_partial *)
Definition exc_named : prog :=
  mkp [mkd (id_ "main" 0) [ib "x" 1]
         (Literal 0 (id_ "z" 6)
         (Create (id_ "a" 7) (Decl (id_ "_Cont" 0)) None
            [(id_ "Ret" 0, [ib "r" 2], Exit (id_ "r" 2))]
         (Call (id_ "f" 0) [ib "x" 1; ib "z" 6; cb "a" 7 "_Cont"])));
       mkd (id_ "f" 0) [ib "x" 3; ib "acc" 4; cb "k" 5 "_Cont"]
         (IfC Eq (id_ "x" 3) None
            (Invoke (id_ "k" 5) (id_ "Ret" 0) (Decl (id_ "_Cont" 0)) [ib "acc" 4])
            (Literal 1 (id_ "one" 8)
            (Op (id_ "x" 3) Sub (id_ "one" 8) (id_ "x" 9)
            (Op (id_ "acc" 4) Sum (id_ "x" 3) (id_ "y" 10)
            (Call (id_ "f" 0) [ib "x" 9; ib "y" 10; cb "k" 5 "_Cont"])))))]
      [t_cont] 10.
Definition exc_named_code : list xcode :=
  match x86_compile (linearize exc_named) 0 with Ok (cs, _, _) => cs | Err _ => [] end.
Lemma exc_named_hypotheses :
  prog_ok exc_named = true /\ cf_frag (linearize exc_named) = true /\ entry_int (linearize exc_named) = true /\
  plain_names (linearize exc_named) = true /\ plain_types (linearize exc_named) = true /\
  (exists n lc', x86_compile (linearize exc_named) 0 = Ok (exc_named_code, n, lc')) /\
  asm_wf exc_named_code = None /\ code_small exc_named_code = true /\
  run_named 100 exc_named [10] = ([], OExit 55) /\
  fst (run_x86 10 2000 exc_named_code [10]) = ([], OExit 55).
Proof. repeat apply conj; try (vm_compute; reflexivity). eexists _, _. vm_compute. reflexivity. Qed.
