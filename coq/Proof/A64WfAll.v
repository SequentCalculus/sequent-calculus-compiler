(* C14, AArch64: EVERY instruction the code generator emits is well-formed, for every program inside the boolean
   guards of Sem/WfGuard64.v.  This file: the body predicate [cok] on one instruction (encodable: Sem/A64Wf.instr_wf;
   every referenced label is not a '#'-mark; a BL goes to one of the two print routines; no GLOBAL directive) and a
   lemma `W (method ...)` for each method of a64_backend (W l = every instruction of l passes cok).  The lifting to
   programs and asm_wf is in Proof/A64WfProg.v.
   Ranges that matter: stack_offset p = 2048 - 8 (p + 1) for p < 256 spill slots (LDR/STR unsigned scaled offset),
   field offsets 16..72, the caller-save bracket of print (at most 17 registers: SUB SP / STR offsets below 144),
   reference-count increments below 4096 (ADD immediate), tag offsets 4 k as an ADD immediate up to 4095 and through
   TEMP2 beyond (a_add_and_jump), half-word chunks of a literal (MOVZ / MOVN / MOVK, any value). *)
From Coq Require Import List ZArith NArith String Ascii Bool Lia.
From SCC Require Import Base.Sexp Lang.AxSyn Model.ParMoves Model.Backend Model.A64
  Sem.A64Wf Sem.WfGuard Sem.WfGuard64 Generated.Constants Proof.LabelGen.
From SCC Require Proof.A64Wf.
Import ListNotations.
Local Open Scope string_scope.
Local Open Scope list_scope.

Definition cok (c : acode) : bool :=
  instr_wf c && forallb (fun l => negb (is_hash_label l)) (referenced c)
  && match c with
     | BL l => String.eqb l "print_i64" || String.eqb l "println_i64"
     | GLOBAL _ => false
     | _ => true
     end.
Definition W (l : list acode) : Prop := Forall (fun c => cok c = true) l.
Lemma W_nil : W [].
Proof. constructor. Qed.
Lemma W_app a b : W a -> W b -> W (a ++ b).
Proof. intros A C. apply Forall_app. split; assumption. Qed.
Lemma W_forallb l : forallb cok l = true -> W l.
Proof. intros H. apply Forall_forall. rewrite forallb_forall in H. exact H. Qed.
Lemma W_In l : W l -> forall c, In c l -> cok c = true.
Proof. intros H. unfold W in H. rewrite Forall_forall in H. exact H. Qed.

(* registers / temporaries the encodings can name *)
Definition reg_enc (r : areg) : Prop := match r with X n => N.leb n 29 = true | _ => False end.
Definition temp_enc (t : atemp) : Prop := match t with AR r => reg_enc r | AS p => N.ltb p SPILL_NUM = true end.

Lemma stack_offset_ok p : N.ltb p SPILL_NUM = true -> uoff8 (stack_offset p) = true.
Proof.
  intros H. apply N.ltb_lt in H. change SPILL_NUM with 256%N in H. unfold uoff8, stack_offset. change SPILL_SPACE with 2048%Z.
  replace (2048 - 8 * (Z.of_N p + 1))%Z with ((255 - Z.of_N p) * 8)%Z by lia. rewrite Z.mod_mul by lia.
  apply andb_true_iff; split; [apply andb_true_iff; split; apply Z.leb_le; lia|reflexivity].
Qed.
Lemma field_offset_ok n o : N.leb o FIELDS_PER_BLOCK = true -> uoff8 (field_offset n o) = true.
Proof.
  intros H. apply N.leb_le in H. change FIELDS_PER_BLOCK with 3%N in H. unfold uoff8, field_offset, address. change A64C.address1 with 8%Z.
  assert (0 <= Z.of_N (tnum_n n) <= 1)%Z by (destruct n; cbn; lia).
  rewrite Z.mul_comm, Z.mod_mul by lia.
  apply andb_true_iff; split; [apply andb_true_iff; split; apply Z.leb_le; lia|reflexivity].
Qed.
Lemma imm12_small i : (0 <= i <= 4095)%Z -> imm12 i = true.
Proof. intros H. unfold imm12. apply orb_true_iff. left. apply andb_true_iff; split; apply Z.leb_le; lia. Qed.
Lemma lab_plain n : is_hash_label (lab n) = false.
Proof. reflexivity. Qed.

(* the operand classes of instr_wf all accept an encodable register *)
Lemma reg_enc_gp r : reg_enc r -> gp r = true /\ gp_or_zr r = true /\ gp_or_sp r = true.
Proof. destruct r; cbn; intros H; try contradiction; auto. Qed.
(* [wf1]: cok of one instruction, by rewriting with the hypotheses on its operands (registers through reg_enc_gp) *)
Ltac wf1 :=
  repeat match goal with H : reg_enc _ |- _ => apply reg_enc_gp in H; destruct H as (? & ? & ?) end;
  unfold cok; cbn [instr_wf referenced forallb gp gp_or_zr gp_or_sp];
  rewrite ?stack_offset_ok by assumption; rewrite ?field_offset_ok by assumption; rewrite ?lab_plain;
  repeat match goal with H : is_hash_label _ = false |- _ => rewrite H end;
  repeat match goal with H : ?x = true |- context [?x] => rewrite H end;
  try reflexivity; repeat (apply andb_true_iff; split); try reflexivity.
Ltac wf :=
  unfold W;
  repeat match goal with
  | |- Forall _ (_ ++ _) => apply Forall_app; split
  | |- Forall _ (_ :: _) => constructor
  | |- Forall _ [] => constructor
  end; try wf1.

Lemma reg_TEMP : reg_enc TEMP. Proof. reflexivity. Qed.
Lemma reg_TEMP2 : reg_enc TEMP2. Proof. reflexivity. Qed.
Lemma reg_HEAP : reg_enc HEAP. Proof. reflexivity. Qed.
Lemma reg_FREE : reg_enc FREE. Proof. reflexivity. Qed.
Lemma reg_TT : reg_enc TEMPORARY_TEMP. Proof. reflexivity. Qed.
Lemma spill_TEMP : N.ltb SPILL_TEMP SPILL_NUM = true. Proof. reflexivity. Qed.

(* the methods of code.rs *)
Lemma W_move_from_register t r : temp_enc t -> reg_enc r -> W (move_from_register t r).
Proof. intros T R. destruct t as [tr|p]; cbn [temp_enc move_from_register] in *; wf. Qed.
Lemma W_move_to_register r t : reg_enc r -> temp_enc t -> W (move_to_register r t).
Proof. intros R T. destruct t as [tr|p]; cbn [temp_enc move_to_register] in *; wf. Qed.

Definition f_ok (f : areg -> areg -> areg -> list acode) : Prop :=
  forall t a b, reg_enc t -> reg_enc a -> reg_enc b -> W (f t a b).
Lemma W_r3 (mk : areg -> areg -> areg -> acode) :
  (forall t a b, instr_wf (mk t a b) = gp_or_zr t && gp_or_zr a && gp_or_zr b) ->
  (forall t a b, referenced (mk t a b) = []) ->
  (forall t a b, match mk t a b with BL _ | GLOBAL _ => False | _ => True end) ->
  f_ok (fun t a b => [mk t a b]).
Proof.
  intros HI HR HM t a b T A Bb. constructor; [|constructor]. unfold cok. rewrite HI, HR. specialize (HM t a b).
  destruct t as [tn| |], a as [an| |], b as [bn| |]; cbn [reg_enc] in *; try contradiction. cbn [gp_or_zr forallb]. rewrite T, A, Bb.
  destruct (mk (X tn) (X an) (X bn)); try contradiction; reflexivity.
Qed.
Lemma f_add : f_ok r_add. Proof. apply (W_r3 ADD); intros; try reflexivity; exact I. Qed.
Lemma f_sub : f_ok r_sub. Proof. apply (W_r3 SUB); intros; try reflexivity; exact I. Qed.
Lemma f_mul : f_ok r_mul. Proof. apply (W_r3 MUL); intros; try reflexivity; exact I. Qed.
Lemma f_div : f_ok r_div. Proof. apply (W_r3 SDIV); intros; try reflexivity; exact I. Qed.
Lemma f_rem : f_ok r_rem.
Proof.
  intros t a b T A Bb. unfold r_rem. pose proof spill_TEMP as S0.
  destruct t as [tn| |], a as [an| |], b as [bn| |]; cbn [reg_enc] in *; try contradiction.
  destruct (areg_eqb (X bn) TEMP2); [destruct (areg_eqb (X tn) TEMP)|]; wf.
Qed.
Lemma W_op f t s1 s2 : f_ok f -> temp_enc t -> temp_enc s1 -> temp_enc s2 -> W (a_op f t s1 s2).
Proof.
  intros F T S1 S2. pose proof reg_TEMP as RT. pose proof reg_TEMP2 as RT2.
  assert (SC : forall r, reg_enc (scratch_for r)) by (intros r; unfold scratch_for; destruct (areg_eqb r TEMP); assumption).
  unfold a_op. destruct t as [tr|tp], s1 as [r1|p1], s2 as [r2|p2]; cbn [temp_enc] in *;
    repeat apply W_app; try (apply F; auto); try solve [wf].
  all: specialize (SC r1); destruct (scratch_for r1) as [sn| |]; cbn [reg_enc] in SC; try contradiction; wf.
Qed.
Lemma W_arith o t s1 s2 : temp_enc t -> temp_enc s1 -> temp_enc s2 -> W (a_arith o t s1 s2).
Proof.
  intros T S1 S2. destruct o; cbn [a_arith]; apply W_op; auto using f_add, f_sub, f_mul, f_div, f_rem.
Qed.
Lemma W_compare a b : temp_enc a -> temp_enc b -> W (compare a b).
Proof. intros A Bb. destruct a as [ar|p], b as [br|q]; cbn [temp_enc compare] in *; wf. Qed.
Lemma W_compare_immediate a : temp_enc a -> W (compare_immediate a 0).
Proof. intros A. destruct a as [ar|p]; cbn [temp_enc compare_immediate] in *; wf. Qed.
Lemma W_bcc s l : is_hash_label l = false -> W [bcc s l].
Proof. intros H. destruct s; cbn [bcc]; wf. Qed.
Lemma W_mov t s : temp_enc t -> temp_enc s -> W (a_mov t s).
Proof.
  intros T S. unfold a_mov. destruct s as [sr|sp].
  - apply W_move_from_register; assumption.
  - destruct t as [tr|tp].
    + apply W_move_to_register; assumption.
    + apply W_app; [apply W_move_to_register|apply W_move_from_register]; auto using reg_TEMP2.
Qed.
Lemma W_jump t : temp_enc t -> W (a_jump t).
Proof. intros T. destruct t as [tr|p]; cbn [temp_enc a_jump] in *; wf. Qed.

(* literals: every half-word is a 16-bit chunk, every shift one of 0 / 16 / 32 / 48 *)
Lemma halfword_range v i : (0 <= halfword v i <= 65535)%Z.
Proof. unfold halfword. pose proof (Z.mod_pos_bound (v / 2 ^ (16 * Z.of_N i)) 65536). lia. Qed.
Lemma imm16_ok h : (0 <= h <= 65535)%Z -> imm16 h = true.
Proof. intros H. unfold imm16. apply andb_true_iff; split; apply Z.leb_le; lia. Qed.
Lemma shift16_ok i : (i <= 3)%N -> shift16 (16 * Z.of_N i) = true.
Proof.
  intros H. assert (C : (i = 0 \/ i = 1 \/ i = 2 \/ i = 3)%N) by lia. destruct C as [->|[->|[->| ->]]]; reflexivity.
Qed.
Lemma W_imm_pieces r v inv ign (R : reg_enc r) : forall is fd,
  (forall i, In i is -> (i <= 3)%N) -> W (imm_pieces r v inv ign fd is).
Proof.
  destruct (reg_enc_gp r R) as (_ & RZ & _).
  induction is as [|i is IH]; intros fd HI; cbn [imm_pieces]; [exact W_nil|].
  assert (HI' : forall j, In j is -> (j <= 3)%N) by (intros; apply HI; right; assumption).
  pose proof (halfword_range v i) as HR. pose proof (shift16_ok i (HI i (or_introl eq_refl))) as SH.
  destruct (Z.eqb _ ign); [apply IH; exact HI'|].
  destruct fd; [|destruct inv]; (constructor; [|apply IH; exact HI']); unfold cok; cbn [instr_wf referenced forallb gp_or_zr];
    rewrite RZ, SH, imm16_ok by lia; reflexivity.
Qed.
Lemma W_imm_code r v : reg_enc r -> W (imm_code r v).
Proof.
  intros R. unfold imm_code.
  destruct (Z.eqb v 0); [wf|]. destruct (Z.eqb v (-1)); [wf|].
  apply W_imm_pieces; [exact R|]. intros i Hi. cbn in Hi. lia.
Qed.
Lemma W_load_immediate t i : temp_enc t -> W (a_load_immediate t i).
Proof.
  intros T. destruct t as [r|p]; cbn [temp_enc a_load_immediate] in *.
  - apply W_imm_code; exact T.
  - apply W_app; [apply W_imm_code; exact reg_TEMP|wf].
Qed.
Lemma W_load_label t l : temp_enc t -> is_hash_label l = false -> W (a_load_label t l).
Proof. intros T H. destruct t as [tr|p]; cbn [temp_enc a_load_label] in *; wf. Qed.
Lemma fits_imm12 i : add_imm_fits i = true -> imm12 i = true.
Proof. unfold add_imm_fits. intros H. apply andb_true_iff in H as [H1 H2]. apply Z.leb_le in H1, H2. apply imm12_small. lia. Qed.
Lemma W_add_offset r i : reg_enc r -> W (add_offset r i).
Proof.
  intros R. unfold add_offset. destruct (add_imm_fits i) eqn:FI.
  - pose proof (fits_imm12 i FI) as F. wf.
  - apply W_app; [apply W_imm_code; exact reg_TEMP2|]. wf.
Qed.
(* the table dispatch of invoke: every offset; old_a_add_and_jump, the code of the finding "tag dispatch immediate", only
   below 1024 xtors *)
Lemma W_add_and_jump t i : temp_enc t -> W (a_add_and_jump t i).
Proof.
  intros T. destruct t as [r|p]; cbn [temp_enc a_add_and_jump] in *.
  - apply W_app; [apply W_add_offset; exact T|]. wf.
  - apply (W_app [_]); [wf|]. apply W_app; [apply W_add_offset; exact reg_TEMP|wf].
Qed.
Lemma tag_imm12 k : (k < A64_XTORS_MAX)%N -> imm12 (jump_length k) = true.
Proof. unfold A64_XTORS_MAX, jump_length. intros H. apply imm12_small. lia. Qed.
Lemma W_old_add_and_jump t k : temp_enc t -> (k < A64_XTORS_MAX)%N -> W (old_a_add_and_jump t (jump_length k)).
Proof.
  intros T K. pose proof (tag_imm12 k K) as F.
  destruct t as [tr|p]; cbn [temp_enc old_a_add_and_jump] in *; wf.
Qed.
Lemma W_store_temporary t f : temp_enc t -> W (a_store_temporary t f).
Proof. intros T. destruct t as [tr|p]; cbn [temp_enc a_store_temporary] in *; wf. Qed.
Lemma W_restore_temporary t f : temp_enc t -> W (a_restore_temporary t f).
Proof. intros T. destruct t as [tr|p]; cbn [temp_enc a_restore_temporary] in *; wf. Qed.

(* print_i64: the caller-save bracket *)
Lemma firstn_In_ {X} (x : X) n l : In x (firstn n l) -> In x l.
Proof. intros H. rewrite <- (firstn_skipn n l). apply in_or_app. left. exact H. Qed.
Lemma skipn_In_ {X} (x : X) n l : In x (skipn n l) -> In x l.
Proof. intros H. rewrite <- (firstn_skipn n l). apply in_or_app. right. exact H. Qed.
Lemma In_nseq o n : In o (nseq 0 n) -> (o < n)%N.
Proof. unfold nseq. intros H. apply in_map_iff in H as (k & <- & H). apply in_seq in H. lia. Qed.
Lemma In_combine_nseq {X} (o : N) (x : X) n l : In (o, x) (combine (nseq 0 n) l) -> (o < n)%N /\ In x l.
Proof. intros H. split; [apply In_nseq; eapply in_combine_l; eauto|eapply in_combine_r; eauto]. Qed.
Lemma csr_regs c r : In r (snd (caller_save_registers_info c)) -> (r <= 29)%N.
Proof. intros H. destruct (Proof.A64Wf.saved_are_clobberable c r H); lia. Qed.
Lemma push_count_le fb regs : (List.length regs <= 17)%nat ->
  (List.length regs - backup_used fb regs <= push_count fb regs <= 18)%nat.
Proof. intros H. unfold push_count. destruct (Nat.even _); lia. Qed.
Lemma W_movs fb used regs :
  (used <= N.to_nat ((REGISTER_NUM - 1) - fb))%nat -> (forall r, In r regs -> (r <= 29)%N) ->
  W (map (fun or_ : N * N => MOVR (X (fb + fst or_)) (X (snd or_))) (combine (nseq 0 (N.of_nat used)) (firstn used regs))) /\
  W (map (fun or_ : N * N => MOVR (X (snd or_)) (X (fb + fst or_))) (combine (nseq 0 (N.of_nat used)) (firstn used regs))).
Proof.
  intros U R. change REGISTER_NUM with 30%N in U.
  split; apply Forall_forall; intros c Hc; apply in_map_iff in Hc as ([o r] & <- & H); apply In_combine_nseq in H as [Ho Hr];
    cbn [fst snd]; assert (A : N.leb (fb + o) 29 = true) by (apply N.leb_le; lia);
    assert (A2 : N.leb r 29 = true) by (apply N.leb_le; apply R; eapply firstn_In_; exact Hr); wf1.
Qed.
Lemma W_print nl s c : temp_enc s -> W (a_print nl s c).
Proof.
  intros T. unfold a_print. pose proof (csr_regs c) as R. pose proof (Proof.A64Wf.saved_length c) as LN.
  destruct (caller_save_registers_info c) as [fb regs]. cbn [snd] in R, LN.
  unfold save_caller_save_registers, restore_caller_save_registers.
  assert (U : (backup_used fb regs <= N.to_nat ((REGISTER_NUM - 1) - fb))%nat) by (unfold backup_used; lia).
  destruct (W_movs fb _ regs U R) as [M1 M2].
  pose proof (push_count_le fb regs LN) as PC.
  set (pc := push_count fb regs) in *. set (used := backup_used fb regs) in *.
  assert (SUBOK : imm12 (address (Z.of_nat pc)) = true).
  { apply imm12_small. unfold address. change A64C.address1 with 8%Z. lia. }
  assert (OFF : forall o r, In (o, r) (combine (nseq 0 (N.of_nat (List.length regs - used))) (skipn used regs)) ->
                uoff8 (address (Z.of_nat pc - 1 - Z.of_N o)) = true /\ N.leb r 29 = true).
  { intros o r H. apply In_combine_nseq in H as [Ho Hr]. split; [|apply N.leb_le, R; eapply skipn_In_; exact Hr].
    unfold uoff8, address. change A64C.address1 with 8%Z. rewrite Z.mul_comm, Z.mod_mul by lia.
    apply andb_true_iff; split; [apply andb_true_iff; split; apply Z.leb_le; lia|reflexivity]. }
  repeat apply W_app.
  - destruct s as [r|p]; [exact W_nil|apply W_move_to_register; [exact reg_TEMP|exact T]].
  - exact M1.
  - destruct (Nat.eqb _ 0); [exact W_nil|]. apply W_app; [wf|].
    apply Forall_forall. intros x Hx. apply in_map_iff in Hx as ([o r] & <- & H). destruct (OFF o r H) as [O1 O2]. cbn [fst snd]. wf1.
  - destruct s as [sr|p]; cbn [temp_enc] in T; wf.
  - destruct nl; wf.
  - exact M2.
  - destruct (Nat.eqb _ 0); [exact W_nil|]. apply W_app; [|wf].
    apply Forall_forall. intros x Hx. apply in_map_iff in Hx as ([o r] & <- & H). apply in_rev in H.
    destruct (OFF o r H) as [O1 O2]. cbn [fst snd]. wf1.
Qed.

(* the methods of memory.rs *)
Lemma W_skip cond body lc : reg_enc cond -> W body -> W (fst (skip_if_zero cond body lc)).
Proof.
  intros T HB. unfold skip_if_zero. cbn [fst].
  apply (W_app [_; _]); [wf|]. apply W_app; [exact HB|wf].
Qed.
Lemma W_ite r th el lc : reg_enc r -> W th -> W el -> W (fst (if_zero_then_else r th el lc)).
Proof.
  intros R H1 H2. unfold if_zero_then_else. cbn [fst].
  apply (W_app [_; _]); [wf|]. apply W_app; [exact H2|]. apply (W_app [_; _]); [wf|]. apply W_app; [exact H1|wf].
Qed.
Lemma W_erase_valid r lc : reg_enc r -> W (fst (erase_valid_object r lc)).
Proof.
  intros R. unfold erase_valid_object.
  apply W_ite; [exact reg_TEMP2|wf|wf].
Qed.
Lemma W_erase t lc : temp_enc t -> W (fst (a_erase_block t lc)).
Proof.
  intros T. destruct t as [r|p]; cbn [a_erase_block temp_enc] in *.
  - pose proof (W_erase_valid r lc T) as H. destruct (erase_valid_object r lc) as [c lc1]. apply W_skip; [exact T|].
    cbn [fst] in H. apply (W_app [_]); [|exact H]. wf.
  - pose proof (W_erase_valid TEMP lc reg_TEMP) as H. destruct (erase_valid_object TEMP lc) as [c lc1]. cbn [fst] in H.
    assert (H1 : W ([LDR TEMP2 TEMP REFERENCE_COUNT_OFFSET] ++ c)) by (apply (W_app [_]); [wf|exact H]).
    pose proof (W_skip TEMP _ lc1 reg_TEMP H1) as H2. destruct (skip_if_zero TEMP _ lc1) as [c2 lc2]. cbn [fst] in *.
    apply W_app; [wf|exact H2].
Qed.
Lemma W_share_code r n : reg_enc r -> (n < A64_SUBST_MAX)%N -> W (share_code r n).
Proof.
  intros R H. assert (F : imm12 (Z.of_N n) = true) by (apply imm12_small; unfold A64_SUBST_MAX in H; lia).
  unfold share_code. wf.
Qed.
Lemma W_share t n lc : temp_enc t -> (n < A64_SUBST_MAX)%N -> W (fst (a_share_block_n t n lc)).
Proof.
  intros T H. destruct t as [r|p]; cbn [a_share_block_n temp_enc] in *.
  - apply W_skip; [exact T|apply W_share_code; assumption].
  - pose proof (W_skip TEMP (share_code TEMP n) lc reg_TEMP (W_share_code TEMP n reg_TEMP H)) as H2.
    destruct (skip_if_zero TEMP (share_code TEMP n) lc) as [c lc1]. cbn [fst] in *. apply W_app; [wf|exact H2].
Qed.
Lemma W_erase_fields_fold r (R : reg_enc r) : forall l acc,
  (forall o, In o l -> N.leb o FIELDS_PER_BLOCK = true) -> W (fst acc) ->
  W (fst (fold_left (fun (acc : list acode * N) (offset : N) =>
               let '(c, lc) := acc in
               let '(c1, lc1) := a_erase_block (AR TEMP) lc in
               (c ++ [LDR TEMP r (field_offset Fst offset)] ++ c1, lc1)) l acc)).
Proof.
  induction l as [|o l IH]; intros [c lc] HO H; cbn [fold_left]; [exact H|]. apply IH; [intros; apply HO; right; assumption|].
  pose proof (W_erase (AR TEMP) lc reg_TEMP) as H2. destruct (a_erase_block (AR TEMP) lc) as [c1 lc1]. cbn [fst] in *.
  assert (O : N.leb o FIELDS_PER_BLOCK = true) by (apply HO; left; reflexivity).
  apply W_app; [exact H|]. apply W_app; [wf|exact H2].
Qed.
Lemma W_erase_fields r lc : reg_enc r -> W (fst (erase_fields r lc)).
Proof.
  intros R.
  unfold erase_fields. apply (W_erase_fields_fold r R); [|exact W_nil].
  intros o H. apply In_nseq in H. apply N.leb_le. lia.
Qed.
Lemma fpb_ok : N.leb FIELDS_PER_BLOCK FIELDS_PER_BLOCK = true. Proof. reflexivity. Qed.
Lemma W_acquire t lc : temp_enc t -> W (fst (acquire_block t lc)).
Proof.
  intros T. unfold acquire_block.
  pose proof (W_erase_fields HEAP lc reg_HEAP) as H1. destruct (erase_fields HEAP lc) as [ef lc1]. cbn [fst] in H1.
  pose proof fpb_ok as FO.
  pose proof (W_ite FREE [ADDI FREE HEAP (field_offset Fst FIELDS_PER_BLOCK)]
                ([STR XZR HEAP NEXT_ELEMENT_OFFSET] ++ ef) lc1 reg_FREE) as H2.
  destruct (if_zero_then_else FREE _ _ lc1) as [inner lc2]. cbn [fst] in H2.
  assert (H2' : W inner).
  { apply H2; [apply W_forallb; reflexivity|apply (W_app [_]); [wf|exact H1]]. }
  match goal with |- context [if_zero_then_else HEAP ?th ?el lc2] =>
    pose proof (W_ite HEAP th el lc2 reg_HEAP) as H3; destruct (if_zero_then_else HEAP th el lc2) as [outer lc3] end.
  cbn [fst] in *. apply W_app.
  - destruct t as [tr|p]; cbn [temp_enc] in T; wf.
  - apply H3; [apply (W_app [_; _]); [wf|exact H2']|destruct t as [tr|p]; cbn [temp_enc] in T; wf].
Qed.

Lemma tfp_enc p t : temporary_from_position p = Ok t -> temp_enc t.
Proof.
  unfold temporary_from_position. destruct (N.ltb_spec (p + RESERVED) REGISTER_NUM) as [H|H].
  - intros E; inversion E; subst. cbn [temp_enc reg_enc]. change REGISTER_NUM with 30%N in H. apply N.leb_le. lia.
  - destruct (N.ltb (p + RESERVED - REGISTER_NUM + RESERVED_SPILLS) SPILL_NUM) eqn:H2; [|discriminate].
    intros E; inversion E; subst. cbn [temp_enc]. exact H2.
Qed.
Lemma fresh_enc n c t : a_fresh n c = Ok t -> temp_enc t.
Proof. apply tfp_enc. Qed.

Lemma W_store_field n c blk o code : reg_enc blk -> N.leb o FIELDS_PER_BLOCK = true -> store_field n c blk o = Ok code -> W code.
Proof.
  unfold store_field. intros R O H. rinv H. inversion H; subst. pose proof (fresh_enc _ _ _ E) as T.
 
  destruct x as [xr|xp]; cbn [temp_enc] in T; wf.
Qed.
Lemma W_load_field n c blk o code : reg_enc blk -> N.leb o FIELDS_PER_BLOCK = true -> load_field n c blk o = Ok code -> W code.
Proof.
  unfold load_field. intros R O H. rinv H. inversion H; subst. pose proof (fresh_enc _ _ _ E) as T.
 
  destruct x as [xr|xp]; cbn [temp_enc] in T; wf.
Qed.
Lemma W_store_zero blk o : reg_enc blk -> N.leb o FIELDS_PER_BLOCK = true -> W (store_zero blk o).
Proof. intros R O. unfold store_zero. wf. Qed.
Lemma W_store_value b rem blk o code : reg_enc blk -> N.leb o FIELDS_PER_BLOCK = true -> store_value b rem blk o = Ok code -> W code.
Proof.
  unfold store_value. intros R O H. rinv H. pose proof (W_store_field _ _ _ _ _ R O E) as N1. destruct (bchi b).
  - rinv H. inversion H; subst. apply W_app; [exact N1|exact (W_store_field _ _ _ _ _ R O E0)].
  - rinv H. inversion H; subst. apply W_app; [exact N1|exact (W_store_field _ _ _ _ _ R O E0)].
  - inversion H; subst. apply W_app; [exact N1|apply W_store_zero; assumption].
Qed.
Lemma leb_le_trans a b : (a <= b)%N -> N.leb b FIELDS_PER_BLOCK = true -> N.leb a FIELDS_PER_BLOCK = true.
Proof. intros H K. apply N.leb_le in K. apply N.leb_le. lia. Qed.
Lemma W_store_zeros n blk : reg_enc blk -> N.leb n FIELDS_PER_BLOCK = true -> W (store_zeros n blk).
Proof.
  intros R O. unfold store_zeros. apply Forall_forall. intros c Hc. apply in_flat_map in Hc as (o & Ho & Hc).
  apply In_nseq in Ho. assert (O2 : N.leb o FIELDS_PER_BLOCK = true) by (apply (leb_le_trans o n); [lia|exact O]).
  exact (W_In _ (W_store_zero blk o R O2) c Hc).
Qed.
Lemma W_store_values rem blk (R : reg_enc blk) : forall l ff code,
  N.leb ff FIELDS_PER_BLOCK = true -> store_values l rem blk ff = Ok code -> W code.
Proof.
  induction l as [|b l IH]; intros ff code O H; cbn [store_values] in H.
  - inversion H; subst. apply W_store_zeros; assumption.
  - rinv H. inversion H; subst. assert (O1 : N.leb (ff - 1) FIELDS_PER_BLOCK = true) by (apply (leb_le_trans _ ff); [lia|exact O]).
    apply W_app; [exact (W_store_value _ _ _ _ _ R O1 E)|exact (IH _ _ O1 E0)].
Qed.
Lemma W_load_value b ex blk o m lc c lc' : reg_enc blk -> N.leb o FIELDS_PER_BLOCK = true ->
  load_value b ex blk o m lc = Ok (c, lc') -> W c.
Proof.
  unfold load_value. intros R O H. rinv H. pose proof (W_load_field _ _ _ _ _ R O E) as N1.
  assert (SH : forall x2 l, temp_enc x2 -> W (fst (a_share_block_n (AR match x2 with AR r => r | AS _ => TEMP end) 1 l))).
  { intros x2 l T2. apply W_share; [|reflexivity]. destruct x2; [exact T2|exact reg_TEMP]. }
  destruct (bchi b).
  1,2: rinv H; pose proof (W_load_field _ _ _ _ _ R O E0) as N2; pose proof (fresh_enc _ _ _ E1) as T2; destruct m.
  - inversion H; subst. apply W_app; assumption.
  - pose proof (SH x1 lc T2) as S1. destruct (a_share_block_n _ 1 lc) as [c3 lc1]. inversion H; subst.
    apply W_app; [exact N1|apply W_app; [exact N2|exact S1]].
  - inversion H; subst. apply W_app; assumption.
  - pose proof (SH x1 lc T2) as S1. destruct (a_share_block_n _ 1 lc) as [c3 lc1]. inversion H; subst.
    apply W_app; [exact N1|apply W_app; [exact N2|exact S1]].
  - inversion H; subst. exact N1.
Qed.
Lemma W_load_values ex blk m (R : reg_enc blk) : forall l ff lc c lc',
  N.leb ff FIELDS_PER_BLOCK = true -> load_values l ex blk ff m lc = Ok (c, lc') -> W c.
Proof.
  induction l as [|b l IH]; intros ff lc c lc' O H; cbn [load_values] in H.
  - inversion H; subst. exact W_nil.
  - rinv H. inversion H; subst. assert (O1 : N.leb (ff - 1) FIELDS_PER_BLOCK = true) by (apply (leb_le_trans _ ff); [lia|exact O]).
    apply W_app; [exact (W_load_value _ _ _ _ _ _ _ _ R O1 E)|exact (IH _ _ _ _ O1 E0)].
Qed.

Lemma cap_le bp : N.leb (FIELDS_PER_BLOCK - bp_n bp) FIELDS_PER_BLOCK = true.
Proof. destruct bp; reflexivity. Qed.
Lemma fpb1_le : N.leb (FIELDS_PER_BLOCK - 1) FIELDS_PER_BLOCK = true.
Proof. reflexivity. Qed.

Lemma W_store_fields : forall fuel to_store remaining bp lc c lc',
  store_fields fuel to_store remaining bp lc = Ok (c, lc') -> W c.
Proof.
  induction fuel as [|fuel IH]; intros to_store remaining bp lc c lc' H; cbn [store_fields] in H; [discriminate|].
  destruct to_store as [|b0 ts].
  - destruct bp; [rinv H|]; inversion H; subst; [|exact W_nil].
    apply W_load_immediate. exact (fresh_enc _ _ _ E).
  - rinv H. pose proof (W_acquire x1 lc (fresh_enc _ _ _ E1)) as A. destruct (acquire_block x1 lc) as [c2 lc2]. rinv H. inversion H; subst.
    cbn [fst] in A.
    assert (N0 : W x) by (destruct bp; [inversion E; exact W_nil|exact (W_store_field _ _ _ _ _ reg_HEAP fpb1_le E)]).
    apply W_app; [exact N0|]. apply W_app; [exact (W_store_values _ _ reg_HEAP _ _ _ (cap_le bp) E0)|].
    apply W_app; [exact A|exact (IH _ _ _ _ _ _ E2)].
Qed.
Lemma W_release m r : reg_enc r -> W (match m with Release => release_block r | Share => [] end).
Proof. intros R. destruct m; [unfold release_block; wf|exact W_nil]. Qed.
Lemma W_load_fields : forall fuel to_load existing bp m freed lc c freed' lc',
  load_fields fuel to_load existing bp m freed lc = Ok (c, freed', lc') -> W c.
Proof.
  induction fuel as [|fuel IH]; intros to_load existing bp m freed lc c freed' lc' H; cbn [load_fields] in H; [discriminate|].
  destruct to_load as [|b0 tl].
  - inversion H; subst. exact W_nil.
  - rstep H. destruct x as [[c0 freed0] lc0]. rinv H. pose proof (IH _ _ _ _ _ _ _ _ _ E) as I0.
    pose proof (fresh_enc _ _ _ E0) as TM. pose proof spill_TEMP as S0. pose proof reg_TT as RT.
    destruct x as [mr|mp]; cbn [temp_enc] in TM; rinv H; inversion H; subst.
    + assert (N2 : W x) by (destruct bp; [inversion E1; exact W_nil|exact (W_load_field _ _ _ _ _ TM fpb1_le E1)]).
      apply W_app; [exact I0|]. apply W_app; [apply W_release; exact TM|]. apply W_app; [exact N2|].
      exact (W_load_values _ _ _ TM _ _ _ _ _ (cap_le bp) E2).
    + assert (N2 : W x) by (destruct bp; [inversion E1; exact W_nil|exact (W_load_field _ _ _ _ _ RT fpb1_le E1)]).
      apply W_app; [exact I0|]. apply W_app; [destruct freed0; wf|]. apply (W_app [_]); [wf|].
      apply W_app; [apply W_release; exact RT|]. apply W_app; [exact N2|].
      apply W_app; [exact (W_load_values _ _ _ RT _ _ _ _ _ (cap_le bp) E2)|destruct bp; wf].
Qed.
Lemma W_load_register blk to_load existing lc c lc' : reg_enc blk ->
  load_register blk to_load existing lc = Ok (c, lc') -> W c.
Proof.
  unfold load_register. intros R H. rstep H. destruct x as [[th f1] lc1]. rstep H. destruct x as [[eb f2] lc2].
  pose proof (W_load_fields _ _ _ _ _ _ _ _ _ _ E) as I1. pose proof (W_load_fields _ _ _ _ _ _ _ _ _ _ E0) as I2.
  assert (K : W (fst (if_zero_then_else TEMP2 th ([SUBI TEMP2 TEMP2 1; STR TEMP2 blk REFERENCE_COUNT_OFFSET] ++ eb) lc2))).
  { apply (W_ite TEMP2 th _ lc2 reg_TEMP2 I1). apply (W_app [_; _]); [|exact I2].
    wf. }
  replace c with (fst (if_zero_then_else TEMP2 th ([SUBI TEMP2 TEMP2 1; STR TEMP2 blk REFERENCE_COUNT_OFFSET] ++ eb) lc2));
    [exact K|inversion H; reflexivity].
Qed.
Lemma W_a_load to_load existing lc c lc' : a_load to_load existing lc = Ok (c, lc') -> W c.
Proof.
  unfold a_load. intros H. destruct to_load as [|b0 tl].
  - inversion H; subst. exact W_nil.
  - rinv H. pose proof (fresh_enc _ _ _ E) as T. destruct x as [r|p]; cbn [temp_enc] in T.
    + rinv H. destruct x as [c1 l1]. cbn [fst snd] in H. inversion H; subst. apply (W_app [_]).
      * wf.
      * exact (W_load_register _ _ _ _ _ _ T E0).
    + rinv H. destruct x as [c1 l1]. cbn [fst snd] in H. inversion H; subst. apply (W_app [_; _]); [wf|].
      exact (W_load_register _ _ _ _ _ _ reg_TEMP E0).
Qed.
Lemma W_a_store to_store remaining lc c lc' : a_store to_store remaining lc = Ok (c, lc') -> W c.
Proof. unfold a_store. apply W_store_fields. Qed.

(* the routine wrapper *)
Lemma W_move_arguments : forall n x, move_arguments n = Ok x -> W x.
Proof.
  intros n x H. destruct n as [|[|[|[|[|[|[|[|n]]]]]]]];
    try (vm_compute in H; inversion H; subst; apply W_forallb; vm_compute; reflexivity).
Qed.
Lemma W_setup n s : setup n = Ok s -> W s.
Proof.
  unfold setup. intros H. rinv H. inversion H; subst. apply (W_app [_; _; _; _; _; _; _]); [apply W_forallb; vm_compute; reflexivity|].
  apply W_app; [exact (W_move_arguments _ _ E)|apply W_forallb; vm_compute; reflexivity].
Qed.
Lemma W_cleanup : W cleanup.
Proof. apply W_forallb. vm_compute. reflexivity. Qed.
