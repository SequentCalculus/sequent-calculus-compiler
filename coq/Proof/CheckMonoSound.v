(* C15, soundness of the model of the type checker (as it is, and before fix d524b1f) with respect to the
   declarative typing rules, on the fragment without type parameters / type arguments. *)
From Coq Require Import List ZArith String Bool Permutation Lia.
From SCC Require Import Base.Sexp Lang.SynUtil Lang.FunSyn Model.Check Sem.FunTyping
  Proof.FunInd Proof.FunEq Proof.CheckAnn Proof.TypingReject Proof.CheckBuild Proof.StringFacts Proof.CheckMono.
Import ListNotations.
Open Scope list_scope.

Definition E (c : fctx) : env := env_of_ctx env_empty c.

Lemma env_of_ctx_app : forall c d G, env_of_ctx G (c ++ d) = env_of_ctx (env_of_ctx G c) d.
Proof. induction c as [|b r IH]; intros d G; simpl; [reflexivity|apply IH]. Qed.
Lemma E_snoc : forall c v ch t, E (c ++ [mkfb v ch t]) = extend (E c) v ch t.
Proof. intros. unfold E. rewrite env_of_ctx_app. reflexivity. Qed.

Lemma env_of_ctx_lookup : forall c G v,
  env_of_ctx G c v = match lookup_last c v with Some b => Some (fbchi b, fbty b) | None => G v end.
Proof.
  induction c as [|b r IH]; intros G v; simpl; [reflexivity|].
  rewrite IH. destruct (lookup_last r v); [reflexivity|].
  unfold extend. rewrite String.eqb_sym. destruct (String.eqb (fbvar b) v); reflexivity.
Qed.
Lemma E_lookup : forall c v, E c v = match lookup_last c v with Some b => Some (fbchi b, fbty b) | None => None end.
Proof. intros. unfold E. rewrite env_of_ctx_lookup. reflexivity. Qed.
Lemma lookup_last_in : forall c v b, lookup_last c v = Some b -> In b c /\ fbvar b = v.
Proof.
  induction c as [|x r IH]; simpl; intros v b H; [discriminate|].
  destruct (lookup_last r v) eqn:El.
  - inversion H; subst. destruct (IH _ _ El). auto.
  - destruct (String.eqb (fbvar x) v) eqn:Ev; [|discriminate]. inversion H; subst.
    apply String.eqb_eq in Ev. auto.
Qed.

Lemma inst_nil : forall targs t, inst [] targs t = t.
Proof.
  intros targs. fix IH 1. intros [|n args]; simpl; [reflexivity|]. f_equal.
  induction args as [|a r IHr]; simpl; [reflexivity|]. rewrite IH, IHr. reflexivity.
Qed.
Lemma extend_sig_nil : forall xs sg G targs, extend_sig G [] targs xs sg = env_of_ctx G (zip_names xs sg).
Proof.
  induction xs as [|x xr IH]; intros sg G targs; simpl; [reflexivity|].
  destruct sg as [|b br]; simpl; [reflexivity|]. rewrite inst_nil. apply IH.
Qed.

Lemma nodup_app_l : forall a b, nodup (a ++ b) = true -> nodup a = true.
Proof.
  induction a as [|x r IH]; intros b H; simpl in *; [reflexivity|].
  apply andb_true_iff in H. destruct H as [Hm Hn]. rewrite (IH _ Hn), andb_true_r.
  destruct (mem x r) eqn:E; [|reflexivity]. apply mem_In in E.
  assert (mem x (r ++ b) = true) by (apply mem_In; apply in_or_app; auto). rewrite H in Hm. discriminate.
Qed.
Lemma nodup_app_r : forall a b, nodup (a ++ b) = true -> nodup b = true.
Proof.
  induction a as [|x r IH]; intros b H; simpl in *; [assumption|].
  apply andb_true_iff in H. destruct H as [_ Hn]. auto.
Qed.
Lemma nodup_app_disj : forall a b x, nodup (a ++ b) = true -> In x a -> In x b -> False.
Proof.
  induction a as [|y r IH]; intros b x H Ha Hb; [destruct Ha|]. simpl in H.
  apply andb_true_iff in H. destruct H as [Hm Hn]. destruct Ha as [->|Ha].
  - assert (mem x (r ++ b) = true) by (apply mem_In; apply in_or_app; auto). rewrite H in Hm. discriminate.
  - eapply IH; eassumption.
Qed.

Lemma find_xtor_unique : forall ts pol td x s,
  nodup (xtor_names pol ts) = true -> In td ts -> td_pol td = pol -> find_xsig td x = Some s ->
  find_xtor ts pol x = Some (td, s).
Proof.
  induction ts as [|t0 r IH]; intros pol td x s Hn Hin Hp Hs; [destruct Hin|].
  rewrite find_xtor_cons. unfold xtor_names in Hn. simpl in Hn.
  destruct Hin as [->|Hin].
  - rewrite Hp, fpol_eqb_refl, Hs. reflexivity.
  - destruct (fpol_eqb (td_pol t0) pol) eqn:Ep; simpl.
    + destruct (find_xsig t0 x) as [s0|] eqn:E0; simpl.
      * exfalso. apply find_xsig_spec in E0. destruct E0 as [Hi0 Hn0].
        apply find_xsig_spec in Hs. destruct Hs as [Hi Hnm].
        eapply (nodup_app_disj _ _ x Hn).
        -- apply in_map_iff. eauto.
        -- apply in_flat_map. exists td. split; [assumption|]. rewrite Hp, fpol_eqb_refl.
           apply in_map_iff. eauto.
      * apply IH; try assumption. eapply nodup_app_r. eassumption.
    + apply IH; try assumption.
Qed.
Lemma xtor_names_of_type_nodup : forall ts pol td,
  nodup (xtor_names pol ts) = true -> In td ts -> td_pol td = pol -> nodup (map xs_name (td_xtors td)) = true.
Proof.
  induction ts as [|t0 r IH]; intros pol td Hn Hin Hp; [destruct Hin|].
  unfold xtor_names in Hn. simpl in Hn. destruct Hin as [->|Hin].
  - rewrite Hp, fpol_eqb_refl in Hn. eapply nodup_app_l. eassumption.
  - eapply IH; try eassumption. eapply nodup_app_r. eassumption.
Qed.
Lemma find_type_unique : forall ts td, nodup (map td_name ts) = true -> In td ts -> find_type ts (td_name td) = Some td.
Proof.
  induction ts as [|t0 r IH]; intros td Hn Hin; [destruct Hin|]. unfold find_type. simpl.
  simpl in Hn. apply andb_true_iff in Hn. destruct Hn as [Hm Hn].
  destruct Hin as [->|Hin]; [rewrite String.eqb_refl; reflexivity|].
  destruct (String.eqb (td_name t0) (td_name td)) eqn:E; [|apply IH; assumption].
  apply String.eqb_eq in E. exfalso.
  assert (mem (td_name t0) (map td_name r) = true) by (apply mem_In; rewrite E; apply in_map; assumption).
  rewrite H in Hm. discriminate.
Qed.
Lemma find_type_name : forall ts n td, find_type ts n = Some td -> td_name td = n.
Proof. intros ts n td H. unfold find_type in H. apply find_some in H. destruct H as [_ E]. apply String.eqb_eq. assumption. Qed.

Definition clause_ok (ts : list tdecl) (fs : list fdef) (G : env) (td : tdecl) (targs : list fty) (T : option fty) (c : fclause) : bool :=
  match c with
  | FClause _ x xs _ body =>
      match find_xsig td x with
      | None => false
      | Some s =>
          nodup xs && Nat.eqb (List.length xs) (List.length (xs_args s))
          && match T, xs_ret s with
             | Some T, _ => chk ts fs (extend_sig G (td_params td) targs xs (xs_args s)) body T
             | None, Some R => chk ts fs (extend_sig G (td_params td) targs xs (xs_args s)) body (inst (td_params td) targs R)
             | None, None => false
             end
      end
  end.
Lemma chk_clauses_forallb : forall ts fs G td targs T cls,
  chk_clauses_with (chk ts fs) G td targs T cls = forallb (clause_ok ts fs G td targs T) cls.
Proof.
  intros ts fs G td targs T cls. induction cls as [|[p x xs cx body] r IH]; simpl; [reflexivity|].
  rewrite IH. reflexivity.
Qed.

Lemma In_aget : forall {V} (l : amap V) k v, NoDup (map fst l) -> In (k, v) l -> aget l k = Some v.
Proof.
  induction l as [|[k0 v0] r IH]; intros k v Hn Hin; [destruct Hin|]. simpl in *.
  inversion Hn as [|? ? Hnotin Hn']; subst.
  destruct Hin as [Heq|Hin].
  - inversion Heq; subst. rewrite String.eqb_refl. reflexivity.
  - destruct (String.eqb k0 k) eqn:E; [|auto].
    apply String.eqb_eq in E. subst. exfalso. apply Hnotin. apply in_map_iff. exists (k, v). auto.
Qed.

Lemma existsb_names_find : forall x l,
  existsb (String.eqb x) (map xs_name l) = is_some (find (fun s => String.eqb (xs_name s) x) l).
Proof.
  induction l as [|s r IH]; simpl; [reflexivity|]. rewrite (String.eqb_sym x (xs_name s)).
  destruct (String.eqb (xs_name s) x); [reflexivity|apply IH].
Qed.
(* scanning the template table for an xtor = find_xtor of the rules *)
Lemma find_template_find_xtor : forall ts pol x,
  find_template_for_xtor pol (map (fun td => (td_name td, tt_val td)) ts) x
  = option_map (fun p => (td_name (fst p), map xs_name (td_xtors (fst p)))) (find_xtor ts pol x).
Proof.
  induction ts as [|t0 r IH]; intros pol x; simpl; [reflexivity|].
  rewrite find_xtor_cons. unfold tt_val at 1. simpl.
  rewrite existsb_names_find. unfold find_xsig at 1.
  destruct (fpol_eqb (td_pol t0) pol); simpl; [|apply IH].
  unfold find_xsig. destruct (find (fun s => String.eqb (xs_name s) x) (td_xtors t0)); simpl; [reflexivity|apply IH].
Qed.

(* the clause loop consumed a permutation of the clauses, one per xtor of the type: the two clause conditions of the rules *)
Lemma clauses_perm_result : forall ts fs G td targs T (chk0 : fterm -> checker) cls used,
  Permutation used (prep_clauses chk0 cls) -> map pc_xtor used = map xs_name (td_xtors td) ->
  nodup (map xs_name (td_xtors td)) = true ->
  Forall (fun pc => clause_ok ts fs G td targs T (clause_of pc) = true) used ->
  same_names (map clause_xtor cls) (map xs_name (td_xtors td)) = true
  /\ chk_clauses_with (chk ts fs) G td targs T cls = true.
Proof.
  intros ts fs G td targs T chk0 cls used Hp Hmap Hnd Hall.
  assert (Hpc : Permutation (map clause_of used) cls).
  { rewrite <- (prep_clauses_map chk0 cls). apply Permutation_map. assumption. }
  assert (Hnames : Permutation (map xs_name (td_xtors td)) (map clause_xtor cls)).
  { rewrite <- Hmap. eapply perm_trans; [|apply Permutation_map; exact Hpc].
    rewrite map_map. apply Permutation_refl'. apply map_ext. intros pc. reflexivity. }
  split.
  - unfold same_names. apply andb_true_iff. split; [apply andb_true_iff; split|].
    + apply NoDup_nodup. eapply Permutation_NoDup; [exact Hnames|]. apply nodup_NoDup. assumption.
    + apply PeanoNat.Nat.eqb_eq. symmetry. apply Permutation_length. assumption.
    + apply forallb_forall. intros x Hx. apply mem_In. eapply Permutation_in; [apply Permutation_sym; exact Hnames|assumption].
  - rewrite chk_clauses_forallb. apply forallb_forall. intros c Hcin.
    apply (Permutation_in _ (Permutation_sym Hpc)) in Hcin. apply in_map_iff in Hcin. destruct Hcin as [pc [<- Hpin]].
    rewrite Forall_forall in Hall. apply Hall. assumption.
Qed.

Lemma chk_case_eq : forall ts fs G t targs c0 clr r T td sg,
  find_xtor ts FData (clause_xtor c0) = Some (td, sg) ->
  chk ts fs G (FCase t targs (c0 :: clr) r) T =
  Nat.eqb (List.length targs) (List.length (td_params td)) && forallb (wf_ty ts) targs
  && chk ts fs G t (FDecl (td_name td) targs)
  && same_names (map clause_xtor (c0 :: clr)) (map xs_name (td_xtors td))
  && chk_clauses_with (chk ts fs) G td targs (Some T) (c0 :: clr).
Proof. intros ts fs G t targs c0 clr r T td sg H. simpl. rewrite H. reflexivity. Qed.

Lemma names_ok_parts : forall ts fs, names_ok ts fs = true ->
  nodup (map td_name ts) = true /\ nodup (xtor_names FData ts) = true
  /\ nodup (xtor_names FCodata ts) = true /\ nodup (map fdname fs) = true.
Proof.
  intros ts fs H. unfold names_ok in H.
  apply andb_true_iff in H. destruct H as [H H4]. apply andb_true_iff in H. destruct H as [H H3].
  apply andb_true_iff in H. destruct H as [H1 H2]. auto.
Qed.
Lemma nodup_xtors : forall ts fs, names_ok ts fs = true -> forall pol, nodup (xtor_names pol ts) = true.
Proof. intros ts fs H [|]; apply (names_ok_parts ts fs H). Qed.

(* W_names comes from build_symbol_table, W_params/W_sigs/W_defs from [mono_prog]; W_ret holds of every program
   (destructor signatures are built with a result type) *)
Record mono_world (ts : list tdecl) (fs : list fdef) : Prop := {
  W_names : names_ok ts fs = true;
  W_params : forall td, In td ts -> td_params td = [];
  W_sigs : forall td s, In td ts -> In s (td_xtors td) -> mono_ctx (xs_args s) = true /\ mono_ann (xs_ret s) = true;
  W_defs : forall d, In d fs -> mono_ctx (fdctx d) = true /\ mono_ty (fdret d) = true;
  W_ret : forall td s, In td ts -> td_pol td = FCodata -> In s (td_xtors td) -> xs_ret s <> None
}.

Section Sound.
  Variable ts : list tdecl.
  Variable fs : list fdef.
  Hypothesis W : mono_world ts fs.

  Lemma lookup_ty_for_xtor_mono : forall st pol x ty xs,
    minv st -> lookup_ty_for_xtor pol st x = Some (ty, xs) ->
    exists n, ty = FDecl n [] /\ aget (st_types st) n = Some (pol, [], xs) /\ In x xs.
  Proof.
    intros st pol x ty xs I. unfold lookup_ty_for_xtor.
    assert (Hall : forall k v, In (k, v) (st_types st) -> aget (st_types st) k = Some v).
    { intros. apply In_aget; [apply (mi_nodup _ I)|assumption]. }
    (* induction over the list that is scanned; [Hall] keeps lookups in the whole table available *)
    revert Hall. generalize (st_types st) at 1 3. intros l. induction l as [|[name [[p targs] xtors]] r IH]; intros Hall H; simpl in H; [discriminate|].
    destruct (fpol_eqb p pol && xtor_matches (print_targs targs) x xtors) eqn:Ec.
    - inversion H; subst. apply andb_true_iff in Ec. destruct Ec as [Ep Ex]. apply fpol_eqb_eq in Ep. subst p.
      pose proof (Hall name _ (or_introl eq_refl)) as Hg.
      destruct (mi_types _ I _ _ _ _ Hg) as [-> _]. exists name. simpl. split; [reflexivity|]. split; [assumption|].
      unfold xtor_matches in Ex. apply existsb_exists in Ex. destruct Ex as [y [Hy Ey]].
      simpl in Ey. rewrite sapp_nil_r in Ey. apply String.eqb_eq in Ey. subst. assumption.
    - apply IH; [|assumption]. intros. apply Hall. right. assumption.
  Qed.
  Lemma lookup_ty_for_xtor_found : forall st pol x n xs,
    minv st -> aget (st_types st) n = Some (pol, [], xs) -> In x xs ->
    exists ty xs', lookup_ty_for_xtor pol st x = Some (ty, xs').
  Proof.
    intros st pol x n xs I Hg Hx. unfold lookup_ty_for_xtor.
    apply aget_In in Hg. revert Hg. generalize (st_types st). intros l. induction l as [|[name [[p targs] xtors]] r IH]; intros Hin; [destruct Hin|].
    simpl. destruct (fpol_eqb p pol && xtor_matches (print_targs targs) x xtors) eqn:Ec; [eauto|].
    destruct Hin as [Heq|Hin]; [|auto].
    inversion Heq; subst. rewrite fpol_eqb_refl in Ec. simpl in Ec.
    assert (xtor_matches "" x xs = true).
    { unfold xtor_matches. apply existsb_exists. exists x. split; [assumption|]. rewrite sapp_nil_r. apply String.eqb_refl. }
    congruence.
  Qed.

  Lemma template_type : forall st n pol xs, tables ts fs st ->
    aget (st_type_templates st) n = Some (pol, [], xs) ->
    exists td, In td ts /\ find_type ts n = Some td /\ td_name td = n /\ td_pol td = pol /\ map xs_name (td_xtors td) = xs.
  Proof.
    intros st n pol xs T H. destruct (find_type_tt ts fs st n pol [] xs T H) as [td [Hf [Hp [_ Hx]]]].
    exists td. pose proof (find_type_in _ _ _ Hf). pose proof (find_type_name _ _ _ Hf). auto.
  Qed.
  Lemma xtor_of_type : forall td x, In td ts -> In x (map xs_name (td_xtors td)) ->
    exists s, find_xsig td x = Some s /\ find_xtor ts (td_pol td) x = Some (td, s) /\ In s (td_xtors td).
  Proof.
    intros td x Hin Hx. destruct (find_xsig_in_name _ _ Hx) as [s Hs]. exists s. split; [assumption|].
    split; [apply find_xtor_unique; auto using (nodup_xtors ts fs (W_names _ _ W))|]. apply find_xsig_spec in Hs. tauto.
  Qed.
  Lemma ctor_template_sig : forall st td x s sg, tables ts fs st -> In td ts -> td_pol td = FData ->
    find_xsig td x = Some s -> aget (st_ctor_templates st) x = Some sg -> sg = xs_args s.
  Proof.
    intros st td x s sg T Hin Hp Hs H. rewrite (t_ct _ _ _ T) in H.
    rewrite (find_xtor_unique ts FData td x s (nodup_xtors ts fs (W_names _ _ W) _) Hin Hp Hs) in H. simpl in H. congruence.
  Qed.
  Lemma dtor_template_sig : forall st td x s sg ret, tables ts fs st -> In td ts -> td_pol td = FCodata ->
    find_xsig td x = Some s -> aget (st_dtor_templates st) x = Some (sg, ret) -> sg = xs_args s /\ xs_ret s = Some ret.
  Proof.
    intros st td x s sg ret T Hin Hp Hs H. rewrite (t_dt _ _ _ T) in H.
    rewrite (find_xtor_unique ts FCodata td x s (nodup_xtors ts fs (W_names _ _ W) _) Hin Hp Hs) in H. unfold dt_val in H. simpl in H.
    destruct (xs_ret s); inversion H; auto.
  Qed.

  Lemma mono_ctx_in : forall c b, mono_ctx c = true -> In b c -> mono_ty (fbty b) = true.
  Proof. intros c b H Hin. unfold mono_ctx in H. rewrite forallb_forall in H. auto. Qed.
  Lemma mono_ctx_app : forall a b, mono_ctx a = true -> mono_ctx b = true -> mono_ctx (a ++ b) = true.
  Proof. intros a b Ha Hb. unfold mono_ctx in *. rewrite forallb_app, Ha, Hb. reflexivity. Qed.
  Lemma mono_zip_names : forall xs sg, mono_ctx sg = true -> mono_ctx (zip_names xs sg) = true.
  Proof.
    induction xs as [|x r IH]; intros sg H; simpl; [reflexivity|]. destruct sg as [|b br]; [reflexivity|].
    simpl in *. apply andb_true_iff in H. destruct H as [H1 H2]. rewrite H1. simpl. auto.
  Qed.

  Definition sound_at (t : fterm) : Prop :=
    forall eager st ctx T t' st',
      mono_term t = true -> mono_ctx ctx = true -> mono_ty T = true -> tables ts fs st -> minv st ->
      check_term_gen eager t st ctx T = COk (t', st') ->
      chk ts fs (E ctx) t T = true /\ minv st' /\ same_templates st st' /\ grows st st'.

  Lemma lookup_covar_E : forall ctx v found, lookup_covar ctx v = COk found ->
    E ctx v = Some (FCns, found) /\ exists b, In b ctx /\ fbty b = found.
  Proof.
    intros ctx v found H. unfold lookup_covar in H. destruct (lookup_last ctx v) as [b|] eqn:El; [|discriminate].
    destruct (fbchi b) eqn:Ec; [discriminate|]. inversion H; subst.
    rewrite E_lookup, El, Ec. split; [reflexivity|]. apply lookup_last_in in El. exists b. tauto.
  Qed.
  Lemma lookup_var_E : forall ctx v found, lookup_var ctx v = COk found ->
    E ctx v = Some (FPrd, found) /\ exists b, In b ctx /\ fbty b = found.
  Proof.
    intros ctx v found H. unfold lookup_var in H. destruct (lookup_last ctx v) as [b|] eqn:El; [|discriminate].
    destruct (fbchi b) eqn:Ec; [|discriminate]. inversion H; subst.
    rewrite E_lookup, El, Ec. split; [reflexivity|]. apply lookup_last_in in El. exists b. tauto.
  Qed.

  (* the optional annotation check `if let Some(ty) = variable.ty { check_equality(ty, found) }` *)
  Lemma ann_check_sound : forall (a : option fty) found st st',
    mono_ann a = true -> mono_ty found = true -> tables ts fs st -> minv st ->
    match a with Some t => check_equality st t found | None => COk st end = COk st' ->
    ann_ok a found = true /\ minv st' /\ same_templates st st' /\ grows st st'.
  Proof.
    intros a found st st' Ha Hf T I H. destruct a as [t|].
    - destruct (check_equality_mono_sound ts fs (W_ret _ _ W) t found st st' Ha Hf T I H) as [-> [_ [I' [S [G _]]]]].
      simpl. rewrite fty_eqb_refl. auto.
    - inversion H; subst. simpl. auto using same_templates_refl, grows_refl.
  Qed.

  Lemma check_args_with_sound : forall args, Forall sound_at args ->
    forall eager tys st ctx args' st',
      mono_terms args = true -> mono_ctx ctx = true -> mono_ctx tys = true -> tables ts fs st -> minv st ->
      check_args_with (check_term_gen eager) args tys st ctx = COk (args', st') ->
      List.length args = List.length tys ->
      chk_args_with (chk ts fs) (E ctx) [] [] args tys = true /\ minv st' /\ same_templates st st' /\ grows st st'.
  Proof.
    intros args HF. induction HF as [|a ar Ha _ IH]; intros eager tys st ctx args' st' Hm Hc Ht T I H Hlen.
    - destruct tys; [|discriminate]. simpl in H. inversion H; subst.
      simpl. auto using same_templates_refl, grows_refl.
    - destruct tys as [|b br]; [discriminate|]. simpl in Hlen. simpl in Hm, Ht.
      apply andb_true_iff in Hm. destruct Hm as [Hma Hmr]. apply andb_true_iff in Ht. destruct Ht as [Htb Htr].
      apply run_args_cons in H. simpl chk_args_with. rewrite inst_nil.
      destruct (fbchi b) eqn:Ech.
      + (* producer argument *)
        destruct H as (st1 & a' & st2 & ar' & H1 & H2 & H3 & ->).
        destruct (ty_check_mono_sound ts fs (W_ret _ _ W) _ _ _ Htb T I H1) as [_ [I1 [S1 [G1 _]]]].
        destruct (Ha eager st1 ctx (fbty b) a' st2 Hma Hc Htb (tables_same _ _ _ _ T S1) I1 H2) as [Hk [I2 [S2 G2]]].
        assert (S12 : same_templates st st2) by frame.
        destruct (IH eager br st2 ctx ar' st' Hmr Hc Htr (tables_same _ _ _ _ T S12) I2 H3) as [Hkr [I3 [S3 G3]]]; [lia|].
        rewrite Hk, Hkr. splits; frame.
      + (* consumer argument: a covariable *)
        destruct H as (v & ann & chi & found & st1 & st2 & ar' & -> & Hchi & Hl & H1 & H2 & H3 & ->).
        destruct (lookup_covar_E _ _ _ Hl) as [HE [b0 [Hb0 Hbt]]].
        assert (Hmf : mono_ty found = true) by (subst found; apply (mono_ctx_in ctx); assumption).
        destruct (ann_check_sound ann found st st1 Hma Hmf T I H1) as [Hann [I1 [S1 G1]]].
        destruct (check_equality_mono_sound ts fs (W_ret _ _ W) _ _ _ _ Htb Hmf (tables_same _ _ _ _ T S1) I1 H2) as [Heq [_ [I2 [S2 [G2 _]]]]].
        assert (S12 : same_templates st st2) by frame.
        destruct (IH eager br st2 ctx ar' st' Hmr Hc Htr (tables_same _ _ _ _ T S12) I2 H3) as [Hkr [I3 [S3 G3]]]; [lia|].
        unfold is_cns. rewrite HE, Heq, fty_eqb_refl, Hkr, Hann, Hchi. splits; frame.
  Qed.

  Definition pc_sound (pc : pclause) : Prop :=
    forall st ctx T t' st',
      mono_ctx ctx = true -> mono_ty T = true -> tables ts fs st -> minv st ->
      pc_chk pc st ctx T = COk (t', st') ->
      chk ts fs (E ctx) (pc_body pc) T = true /\ minv st' /\ same_templates st st' /\ grows st st'.

  Lemma check_clauses_sound : forall (is_case : bool) T td xtors pcls st ctx cls' leftover st',
    Forall pc_sound pcls -> mono_ctx ctx = true -> tables ts fs st -> minv st ->
    In td ts -> (forall x, In x xtors -> In x (map xs_name (td_xtors td))) ->
    td_pol td = (if is_case then FData else FCodata) -> (is_case = true -> mono_ty T = true) ->
    check_clauses is_case "" T xtors pcls st ctx = COk (cls', leftover, st') ->
    exists used, Permutation (used ++ leftover) pcls /\ map pc_xtor used = xtors
      /\ Forall (fun pc => clause_ok ts fs (E ctx) td [] (if is_case then Some T else None) (clause_of pc) = true) used
      /\ minv st' /\ same_templates st st' /\ grows st st'.
  Proof.
    intros is_case T td xtors. induction xtors as [|x xr IH];
      intros pcls st ctx cls' leftover st' HF Hc Tb I Htd Hxs Hpol HT H.
    - simpl in H. inversion H; subst. exists []. simpl.
      splits; auto using same_templates_refl, grows_refl.
    - apply run_clauses_cons in H.
      destruct H as (cl & pcls' & sg & bty & body' & st1 & rest & Hx & Hperm & Hsig & Hnd & Elen & Hbody & Hrest & ->).
      assert (HF' : Forall pc_sound (cl :: pcls')).
      { eapply Permutation_Forall; [apply Permutation_sym; eassumption|assumption]. }
      inversion HF' as [|? ? Hcl HFr]; subst x.
      rewrite sapp_nil_r in Hsig.
      destruct (xtor_of_type td (pc_xtor cl)) as [s [Hs [Hfx Hsin]]]; [assumption|apply Hxs; left; reflexivity|].
      destruct (W_sigs _ _ W td s Htd Hsin) as [Hms Hmr].
      assert (Hsg : sg = xs_args s /\ (if is_case then bty = T else xs_ret s = Some bty)).
      { destruct is_case.
        - destruct Hsig as [Eg ->]. destruct (mi_ctors _ I _ _ Eg) as [Ht _]. split; [|reflexivity].
          eapply ctor_template_sig; eassumption.
        - destruct (mi_dtors _ I _ _ Hsig) as [Ht _]. eapply dtor_template_sig; eassumption. }
      destruct Hsg as [-> Hbty].
      assert (Hmb : mono_ty bty = true).
      { destruct is_case; [subst; auto|]. rewrite Hbty in Hmr. exact Hmr. }
      assert (Hmc : mono_ctx (ctx ++ zip_names (pc_names cl) (xs_args s)) = true)
        by (apply mono_ctx_app; [assumption|apply mono_zip_names; assumption]).
      destruct (Hcl st _ bty body' st1 Hmc Hmb Tb I Hbody) as [Hk [I1 [S1 G1]]].
      destruct (IH pcls' st1 ctx rest leftover st' HFr Hc (tables_same _ _ _ _ Tb S1) I1 Htd) as [used [Hp [Hmap [Hall [I2 [S2 G2]]]]]]; auto.
      { intros y Hy. apply Hxs. right. assumption. }
      exists (cl :: used). splits.
      + simpl. eapply perm_trans; [apply perm_skip; eassumption|assumption].
      + simpl. rewrite Hmap. reflexivity.
      + constructor; [|exact Hall].
        unfold clause_of, clause_ok. rewrite Hs, (names_no_dups_ok _ Hnd), Elen, PeanoNat.Nat.eqb_refl. simpl.
        rewrite (W_params _ _ W td Htd), extend_sig_nil.
        unfold E in Hk. rewrite env_of_ctx_app in Hk.
        destruct is_case; [subst bty; exact Hk|]. rewrite Hbty, inst_nil. exact Hk.
      + assumption.
      + frame.
      + frame.
  Qed.

  Lemma prep_clauses_sound : forall eager cls,
    Forall (fun c => sound_at (clause_body c)) cls -> mono_clauses cls = true ->
    Forall pc_sound (prep_clauses (check_term_gen eager) cls).
  Proof.
    intros eager cls HF. induction HF as [|[p x ns c b] r Hc _ IH]; intros Hm; simpl; constructor.
    - simpl in Hm. apply andb_true_iff in Hm. destruct Hm as [Hb _].
      unfold pc_sound. simpl. intros. eapply Hc; eassumption.
    - apply IH. simpl in Hm. apply andb_true_iff in Hm. tauto.
  Qed.

  Lemma clauses_complete_list : forall (is_case : bool) (T : fty) td cls used,
    In td ts -> td_pol td = (if is_case then FData else FCodata) ->
    Permutation used (prep_clauses (check_term_gen false) cls) -> True.
  Proof. trivial. Qed.

  Lemma clauses_sound_result : forall eager (is_case : bool) T td cls st ctx cls' st',
    Forall (fun c => sound_at (clause_body c)) cls -> mono_clauses cls = true ->
    mono_ctx ctx = true -> tables ts fs st -> minv st -> In td ts ->
    td_pol td = (if is_case then FData else FCodata) -> (is_case = true -> mono_ty T = true) ->
    check_clauses is_case "" T (map xs_name (td_xtors td)) (prep_clauses (check_term_gen eager) cls) st ctx = COk (cls', [], st') ->
    same_names (map clause_xtor cls) (map xs_name (td_xtors td)) = true
    /\ chk_clauses_with (chk ts fs) (E ctx) td [] (if is_case then Some T else None) cls = true
    /\ minv st' /\ same_templates st st' /\ grows st st'.
  Proof.
    intros eager is_case T td cls st ctx cls' st' HF Hm Hc Tb I Htd Hpol HT H.
    destruct (check_clauses_sound is_case T td _ _ st ctx cls' [] st' (prep_clauses_sound eager cls HF Hm) Hc Tb I Htd (fun x H => H) Hpol HT H)
      as [used [Hp [Hmap [Hall [I' [S G]]]]]].
    rewrite app_nil_r in Hp.
    assert (Hnd : nodup (map xs_name (td_xtors td)) = true).
    { eapply xtor_names_of_type_nodup; [apply (nodup_xtors ts fs (W_names _ _ W))|eassumption|reflexivity]. }
    destruct (clauses_perm_result ts fs _ td [] _ _ cls used Hp Hmap Hnd Hall). auto.
  Qed.

  Lemma lookup_or_template_sound : forall pol st x ty xs st1,
    tables ts fs st -> minv st ->
    lookup_ty_for_xtor_or_template pol st x [] = COk (ty, xs, st1) ->
    exists td, In td ts /\ td_pol td = pol /\ ty = FDecl (td_name td) [] /\ xs = map xs_name (td_xtors td)
               /\ In x xs /\ minv st1 /\ same_templates st st1 /\ grows st st1.
  Proof.
    intros pol st x ty xs st1 T I H. unfold lookup_ty_for_xtor_or_template in H.
    rewrite print_targs_nil, sapp_nil_r in H.
    destruct (lookup_ty_for_xtor pol st x) as [[ty0 xs0]|] eqn:El.
    - inversion H; subst. destruct (lookup_ty_for_xtor_mono _ _ _ _ _ I El) as [n [-> [Hg Hx]]].
      destruct (mi_types _ I _ _ _ _ Hg) as [_ Ht].
      destruct (template_type _ _ _ _ T Ht) as [td [Hin [_ [Hn [Hp Hxs]]]]].
      exists td. subst. splits; auto using same_templates_refl, grows_refl.
    - unfold lookup_ty_template_for_xtor in H. rewrite (t_tt_list _ _ _ T), find_template_find_xtor in H.
      destruct (find_xtor ts pol x) as [[td s]|] eqn:Ef; simpl in H; [|discriminate].
      apply cbind_ok in H. destruct H as [st2 [Hc H]]. inversion H; subst.
      destruct (ty_check_mono_sound ts fs (W_ret _ _ W) (FDecl (td_name td) []) st st1 eq_refl T I Hc) as [_ [I1 [S1 [G1 _]]]].
      apply find_xtor_in in Ef. destruct Ef as [Hin [Hp Hs]].
      exists td. splits; auto.
      apply find_xsig_spec in Hs. destruct Hs as [Hs <-]. apply in_map. assumption.
  Qed.

  Lemma eager_step : forall (eager : bool) T st st0, mono_ty T = true -> tables ts fs st -> minv st ->
    (if eager then ty_check T st else COk st) = COk st0 ->
    minv st0 /\ same_templates st st0 /\ grows st st0.
  Proof.
    intros eager T st st0 Hm Tb I H. destruct eager.
    - destruct (ty_check_mono_sound ts fs (W_ret _ _ W) _ _ _ Hm Tb I H) as [_ [I1 [S1 [G1 _]]]]. auto.
    - inversion H; subst. auto using same_templates_refl, grows_refl.
  Qed.


  Theorem check_term_gen_sound : forall t, sound_at t.
  Proof.
    intros t. induction t using fterm_ind'; unfold sound_at;
      intros eager st ctx T t' st' Hm Hc HT Tb I Hk; simpl in Hm.
    - (* FVar *)
      apply run_var in Hk. destruct Hk as (Hchi & found & st1 & Hl & H1 & H2 & ->).
      destruct (lookup_var_E _ _ _ Hl) as [HE [b0 [Hb0 Hbt]]].
      assert (Hmf : mono_ty found = true) by (subst found; apply (mono_ctx_in ctx); assumption).
      destruct (ann_check_sound ty found st st1 Hm Hmf Tb I H1) as [Hann [I1 [S1 G1]]].
      destruct (check_equality_mono_sound ts fs (W_ret _ _ W) _ _ _ _ HT Hmf (tables_same _ _ _ _ Tb S1) I1 H2) as [Heq [_ [I2 [S2 [G2 _]]]]].
      rewrite <- Heq in HE, Hann. simpl. unfold is_prd. rewrite HE, fty_eqb_refl, Hann, Hchi. splits; frame.
    - (* FLit *)
      apply run_lit in Hk. destruct Hk as [H1 ->].
      destruct (check_equality_mono_sound ts fs (W_ret _ _ W) T FI64 _ _ HT eq_refl Tb I H1) as [Heq [_ [I2 [S2 [G2 _]]]]].
      subst T. splits; frame.
    - (* FOp *)
      apply andb_true_iff in Hm. destruct Hm as [Hm1 Hm2].
      apply run_op in Hk. destruct Hk as (st1 & a' & st2 & b' & H1 & H2 & H3 & ->).
      destruct (check_equality_mono_sound ts fs (W_ret _ _ W) FI64 T _ _ eq_refl HT Tb I H1) as [Heq [_ [I1 [S1 [G1 _]]]]].
      subst T.
      destruct (IHt1 eager st1 ctx FI64 a' st2 Hm1 Hc eq_refl (tables_same _ _ _ _ Tb S1) I1 H2) as [K1 [I2 [S2 G2]]].
      assert (S12 : same_templates st st2) by frame.
      destruct (IHt2 eager st2 ctx FI64 b' st' Hm2 Hc eq_refl (tables_same _ _ _ _ Tb S12) I2 H3) as [K2 [I3 [S3 G3]]].
      simpl. rewrite K1, K2. splits; frame.
    - (* FIfC *)
      apply andb_true_iff in Hm. destruct Hm as [Hm Hm4]. apply andb_true_iff in Hm. destruct Hm as [Hm Hm3].
      apply andb_true_iff in Hm. destruct Hm as [Hm1 Hm2].
      apply run_ifc in Hk. destruct Hk as (a' & st1 & b' & st2 & th' & st3 & el' & H1 & H2 & H3 & H4 & ->).
      destruct (IHt1 eager st ctx FI64 a' st1 Hm1 Hc eq_refl Tb I H1) as [K1 [I1 [S1 G1]]].
      assert (Hb : match b with Some b' => chk ts fs (E ctx) b' FI64 | None => true end = true
                   /\ minv st2 /\ same_templates st1 st2 /\ grows st1 st2).
      { destruct b as [b0|], b' as [b1|]; try contradiction.
        - eapply H; [reflexivity|exact Hm2|exact Hc|reflexivity|exact (tables_same _ _ _ _ Tb S1)|exact I1|exact H2].
        - subst st2. splits; frame. }
      destruct Hb as [K2 [I2 [S2 G2]]].
      assert (S02 : same_templates st st2) by frame.
      destruct (IHt2 eager st2 ctx T th' st3 Hm3 Hc HT (tables_same _ _ _ _ Tb S02) I2 H3) as [K3 [I3 [S3 G3]]].
      assert (S03 : same_templates st st3) by frame.
      destruct (IHt3 eager st3 ctx T el' st' Hm4 Hc HT (tables_same _ _ _ _ Tb S03) I3 H4) as [K4 [I4 [S4 G4]]].
      simpl. rewrite K1, K2, K3, K4. splits; frame.
    - (* FPrint *)
      apply andb_true_iff in Hm. destruct Hm as [Hm1 Hm2].
      apply run_print in Hk. destruct Hk as (a' & st1 & n' & H1 & H2 & ->).
      destruct (IHt1 eager st ctx FI64 a' st1 Hm1 Hc eq_refl Tb I H1) as [K1 [I1 [S1 G1]]].
      destruct (IHt2 eager st1 ctx T n' st' Hm2 Hc HT (tables_same _ _ _ _ Tb S1) I1 H2) as [K2 [I2 [S2 G2]]].
      simpl. rewrite K1, K2. splits; frame.
    - (* FLet *)
      apply andb_true_iff in Hm. destruct Hm as [Hm Hm3]. apply andb_true_iff in Hm. destruct Hm as [Hm1 Hm2].
      apply run_let in Hk. destruct Hk as (st1 & a' & st2 & b' & H1 & H2 & H3 & ->).
      destruct (ty_check_mono_sound ts fs (W_ret _ _ W) _ _ _ Hm1 Tb I H1) as [Hw [I1 [S1 [G1 _]]]].
      destruct (IHt1 eager st1 ctx vty a' st2 Hm2 Hc Hm1 (tables_same _ _ _ _ Tb S1) I1 H2) as [K1 [I2 [S2 G2]]].
      assert (S02 : same_templates st st2) by frame.
      assert (Hc' : mono_ctx (ctx ++ [mkfb v FPrd vty]) = true).
      { apply mono_ctx_app; [assumption|]. simpl. rewrite Hm1. reflexivity. }
      destruct (IHt2 eager st2 _ T b' st' Hm3 Hc' HT (tables_same _ _ _ _ Tb S02) I2 H3) as [K2 [I3 [S3 G3]]].
      rewrite E_snoc in K2. simpl. rewrite Hw, K1, K2. splits; frame.
    - (* FCall *)
      rewrite mono_terms_eq in Hm.
      apply run_call in Hk. destruct Hk as (types & ret & st1 & args' & Ed & H1 & H2 & ->).
      rewrite (t_df _ _ _ Tb) in Ed. destruct (find_def fs f) as [d|] eqn:Ef; [|discriminate]. simpl in Ed. inversion Ed; subst.
      assert (Hdin : In d fs) by (unfold find_def in Ef; apply find_some in Ef; tauto).
      destruct (W_defs _ _ W d Hdin) as [Hmd Hmr].
      destruct (check_equality_mono_sound ts fs (W_ret _ _ W) _ _ _ _ HT Hmr Tb I H1) as [Heq [_ [I1 [S1 [G1 _]]]]].
      apply run_args in H2. destruct H2 as [El H2].
      destruct (check_args_with_sound args H eager _ _ _ _ _ Hm Hc Hmd (tables_same _ _ _ _ Tb S1) I1 H2 El) as [K [I2 [S2 G2]]].
      subst T. simpl. rewrite Ef, fty_eqb_refl, K. splits; frame.
    - (* FCtor *)
      rewrite mono_terms_eq in Hm.
      apply run_ctor in Hk. destruct Hk as (st0 & n & targs & types & ty & xs & args' & st1 & H0 & -> & Ec & El & H1 & H2 & ->).
      destruct (eager_step _ _ _ _ HT Tb I H0) as [I0 [S0 G0]].
      pose proof (tables_same _ _ _ _ Tb S0) as Tb0.
      pose proof (mono_ty_decl _ _ HT) as ->.
      rewrite print_targs_nil, sapp_nil_r in Ec, El.
      destruct (lookup_ty_for_xtor_mono _ _ _ _ _ I0 El) as [n' [-> [Hg Hx]]].
      destruct (mi_types _ I0 _ _ _ _ Hg) as [_ Ht].
      destruct (template_type _ _ _ _ Tb0 Ht) as [td [Hin [Hft [Hn [Hp Hxs]]]]].
      subst xs. destruct (xtor_of_type td x Hin Hx) as [s [Hs [_ Hsin]]].
      destruct (mi_ctors _ I0 _ _ Ec) as [Htc _].
      pose proof (ctor_template_sig _ _ _ _ _ Tb0 Hin Hp Hs Htc) as ->.
      destruct (W_sigs _ _ W td s Hin Hsin) as [Hms _].
      apply run_args in H1. destruct H1 as [Elen H1].
      destruct (check_args_with_sound args H eager _ _ _ _ _ Hm Hc Hms Tb0 I0 H1 Elen) as [K [I1 [S1 G1]]].
      assert (S01 : same_templates st st1) by frame.
      destruct (check_equality_mono_sound ts fs (W_ret _ _ W) (FDecl n []) (FDecl n' []) _ _ HT eq_refl (tables_same _ _ _ _ Tb S01) I1 H2) as [Heq [_ [I2 [S2 [G2 _]]]]].
      inversion Heq; subst n'. simpl. rewrite Hft, Hp, (W_params _ _ W td Hin), Hs. simpl. rewrite K. splits; frame.
    - (* FDtor *)
      apply andb_true_iff in Hm. destruct Hm as [Hm Hm3]. apply andb_true_iff in Hm. destruct Hm as [Hm1 Hm2].
      rewrite mono_terms_eq in Hm3. destruct targs; [|discriminate].
      apply run_dtor in Hk. destruct Hk as (ty & xs & st1 & s' & st2 & types & ret & args' & st3 & H1 & H2 & Ed & H3 & H4 & ->).
      rewrite print_targs_nil, sapp_nil_r in Ed.
      destruct (lookup_or_template_sound _ _ _ _ _ _ Tb I H1) as [td [Hin [Hp [-> [-> [Hx [I1 [S1 G1]]]]]]]].
      destruct (IHt eager st1 ctx (FDecl (td_name td) []) s' st2 Hm2 Hc eq_refl (tables_same _ _ _ _ Tb S1) I1 H2) as [K1 [I2 [S2 G2]]].
      assert (S02 : same_templates st st2) by frame. pose proof (tables_same _ _ _ _ Tb S02) as Tb2.
      destruct (xtor_of_type td x Hin Hx) as [s [Hs [Hfx Hsin]]]. rewrite Hp in Hfx.
      destruct (mi_dtors _ I2 _ _ Ed) as [Htd _].
      destruct (dtor_template_sig _ _ _ _ _ _ Tb2 Hin Hp Hs Htd) as [-> Hret].
      destruct (W_sigs _ _ W td s Hin Hsin) as [Hms Hmr]. rewrite Hret in Hmr. simpl in Hmr.
      apply run_args in H3. destruct H3 as [Elen H3].
      destruct (check_args_with_sound args H eager _ _ _ _ _ Hm3 Hc Hms Tb2 I2 H3 Elen) as [K2 [I3 [S3 G3]]].
      assert (S03 : same_templates st st3) by frame.
      destruct (check_equality_mono_sound ts fs (W_ret _ _ W) _ _ _ _ HT Hmr (tables_same _ _ _ _ Tb S03) I3 H4) as [Heq [_ [I4 [S4 [G4 _]]]]].
      simpl. rewrite Hfx, (W_params _ _ W td Hin). simpl. rewrite K1, K2, Hret, inst_nil, Heq, fty_eqb_refl. splits; frame.
    - (* FCase *)
      apply andb_true_iff in Hm. destruct Hm as [Hm Hm3]. apply andb_true_iff in Hm. destruct Hm as [Hm1 Hm2].
      rewrite mono_clauses_eq in Hm3. destruct targs; [|discriminate].
      apply run_case in Hk.
      destruct Hk as (p0 & x0 & ns0 & c0 & b0 & clr & ty & xs & st1 & s' & st2 & cls' & -> & H1 & H2 & H3 & ->).
      destruct (lookup_or_template_sound _ _ _ _ _ _ Tb I H1) as [td [Hin [Hp [-> [-> [Hx [I1 [S1 G1]]]]]]]].
      destruct (IHt eager st1 ctx (FDecl (td_name td) []) s' st2 Hm2 Hc eq_refl (tables_same _ _ _ _ Tb S1) I1 H2) as [K1 [I2 [S2 G2]]].
      assert (S02 : same_templates st st2) by frame.
      rewrite print_targs_nil in H3.
      destruct (clauses_sound_result eager true T td _ st2 ctx cls' st' H Hm3 Hc (tables_same _ _ _ _ Tb S02) I2 Hin Hp (fun _ => HT) H3)
        as [Ksn [Kcl [I3 [S3 G3]]]].
      destruct (xtor_of_type td x0 Hin Hx) as [s [Hs [Hfx Hsin]]]. rewrite Hp in Hfx.
      rewrite (chk_case_eq ts fs _ t [] (FClause p0 x0 ns0 c0 b0) clr r T td s Hfx), K1, Ksn, Kcl, (W_params _ _ W td Hin). splits; frame.
    - (* FNew *)
      rewrite mono_clauses_eq in Hm.
      apply run_new in Hk. destruct Hk as (st0 & n & targs & targs' & dtors & cls' & H0 & -> & Eg & H1 & ->).
      destruct (eager_step _ _ _ _ HT Tb I H0) as [I0 [S0 G0]].
      pose proof (tables_same _ _ _ _ Tb S0) as Tb0.
      pose proof (mono_ty_decl _ _ HT) as ->.
      rewrite print_targs_nil, sapp_nil_r in Eg. rewrite print_targs_nil in H1.
      destruct (mi_types _ I0 _ _ _ _ Eg) as [-> Ht].
      destruct (template_type _ _ _ _ Tb0 Ht) as [td [Hin [Hft [Hn [Hp Hxs]]]]]. subst dtors.
      destruct (clauses_sound_result eager false (FDecl n []) td _ st0 ctx cls' st' H Hm Hc Tb0 I0 Hin Hp (fun H => ltac:(discriminate)) H1)
        as [Ksn [Kcl [I3 [S3 G3]]]].
      simpl. rewrite Hft, Hp, (W_params _ _ W td Hin). simpl. rewrite Ksn, Kcl. splits; frame.
    - (* FLabel *)
      apply run_label in Hk. destruct Hk as (b' & H1 & ->).
      assert (Hc' : mono_ctx (ctx ++ [mkfb l FCns T]) = true).
      { apply mono_ctx_app; [assumption|]. simpl. rewrite HT. reflexivity. }
      destruct (IHt eager st _ T b' st' Hm Hc' HT Tb I H1) as [K [I1 [S1 G1]]].
      rewrite E_snoc in K. simpl. rewrite K. splits; frame.
    - (* FGoto *)
      apply run_goto in Hk. destruct Hk as (cont & b' & Hl & H1 & ->).
      destruct (lookup_covar_E _ _ _ Hl) as [HE [b0 [Hb0 Hbt]]].
      assert (Hmf : mono_ty cont = true) by (subst cont; apply (mono_ctx_in ctx); assumption).
      destruct (IHt eager st ctx cont b' st' Hm Hc Hmf Tb I H1) as [K [I1 [S1 G1]]].
      simpl. unfold cns_ty. rewrite HE, K. splits; frame.
    - (* FExit *)
      apply run_exit in Hk. destruct Hk as (b' & H1 & ->).
      destruct (IHt eager st ctx FI64 b' st' Hm Hc eq_refl Tb I H1) as [K [I1 [S1 G1]]].
      simpl. rewrite K. splits; frame.
    - (* FParen *)
      apply run_paren in Hk. destruct Hk as (b' & H1 & ->).
      destruct (IHt eager st ctx T b' st' Hm Hc HT Tb I H1) as [K [I1 [S1 G1]]].
      simpl. rewrite K. splits; frame.
  Qed.
End Sound.
