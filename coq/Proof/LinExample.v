(* A concrete non-trivial program for the Examples of Props/C05.v: `def g` of the design spike
   (docs/DESIGN-round0.md, Appendix F: a closure capturing two of four parameters, a switch on a live list, a
   nested continuation closure) plus a `main` that calls it with a duplicated argument. *)
From Coq Require Import String List ZArith NArith Bool.
From SCC Require Import Base.Sexp Lang.AxSyn Sem.AxSem Model.Linearize Model.LinCheck.
Import ListNotations.
Open Scope string_scope.
Open Scope N_scope.

Definition i (n : string) (k : N) : ident := (n, k).
Definition Cont := Decl ("_Cont", 0).
Definition FunT := Decl ("Fun[i64, i64]", 0).
Definition ListT := Decl ("List[i64]", 0).
Definition e (x : ident) := mkb x Ext I64.

Definition g_ctx : ctx := [e (i "a" 2); e (i "b" 3); mkb (i "l" 4) Prd ListT; mkb (i "a0" 5) Cns Cont].
Definition g_body : stmt :=
  Create (i "f" 8) FunT None
    [ (i "apply" 0, [e (i "x" 6); mkb (i "a2" 7) Cns Cont],
        Op (i "x" 6) Sum (i "a" 2) (i "x" 18)
        (Op (i "x" 18) Sum (i "b" 3) (i "x" 20)
        (Invoke (i "a2" 7) (i "Ret" 0) Cont [e (i "x" 20)]))) ]
  (Switch (i "l" 4) ListT
    [ (i "Nil" 0, [], Invoke (i "f" 8) (i "apply" 0) FunT [e (i "b" 3); mkb (i "a0" 5) Cns Cont]);
      (i "Cons" 0, [e (i "y" 9); mkb (i "ys" 10) Prd ListT],
         Create (i "a1" 11) Cont None
           [ (i "Ret" 0, [e (i "x" 19)],
               Op (i "x" 19) Sum (i "a" 2) (i "x" 21)
               (Invoke (i "a0" 5) (i "Ret" 0) Cont [e (i "x" 21)])) ]
           (Invoke (i "f" 8) (i "apply" 0) FunT [e (i "y" 9); mkb (i "a1" 11) Cns Cont])) ]).

(* main(n, k): k0 = { Ret(r) => println r; exit r }; l = Cons(k, Nil); g(n, n, l, k0) *)
Definition main_ctx : ctx := [e (i "n" 22); e (i "k" 23)].
Definition main_body : stmt :=
  Create (i "k0" 24) Cont None
    [ (i "Ret" 0, [e (i "r" 25)], PrintI64 true (i "r" 25) (Exit (i "r" 25))) ]
  (Let (i "nil" 26) ListT (i "Nil" 0) []
  (Let (i "l" 27) ListT (i "Cons" 0) [e (i "k" 23); mkb (i "nil" 26) Prd ListT]
  (Call (i "g" 0) [e (i "n" 22); e (i "n" 22); mkb (i "l" 27) Prd ListT; mkb (i "k0" 24) Cns Cont]))).

Definition ex_types : list tydecl :=
  [ mkt ("_Cont", 0) [mkx (i "Ret" 0) [e (i "x" 0)]];
    mkt ("Fun[i64, i64]", 0) [mkx (i "apply" 0) [e (i "x" 0); mkb (i "a" 0) Cns Cont]];
    mkt ("List[i64]", 0) [mkx (i "Nil" 0) []; mkx (i "Cons" 0) [e (i "x" 0); mkb (i "xs" 0) Prd ListT]] ].

Definition ex_prog : prog :=
  mkp [mkd (i "main" 0) main_ctx main_body; mkd (i "g" 0) g_ctx g_body] ex_types 27.
