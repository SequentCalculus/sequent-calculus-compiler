(* C08, heap statements: non-vacuity of rv_codegen_simulates.
   `fits_b`: the numeric hypothesis `heap_fits` decided by running the instrumented machine (the frontier of
   every configuration of a terminating run is checked).  The example program: a loop that in every
   iteration builds a two-element list (Let with 0 and 2 fields), a three-field record holding the list
   twice (sharing), takes the record apart (Switch, destructive load), takes the shared list apart while
   it is still referenced (non-destructive load) and again when it is not, drops what is left (erasure,
   recycled by the next allocations), and finally invokes a closure that captured an integer.  It is written
   in named AxCut and linearized by the model of the compiler's linearization pass.  All hypotheses are
   evaluated, and both machines are computed. *)
From Coq Require Import List ZArith NArith String Bool Lia.
From SCC Require Import Base.Sexp Lang.AxSyn Sem.AxSem Sem.AxHeap Model.Backend Model.RV Sem.RVSem Sem.RVWf
     Model.Linearize Model.LinCheck Model.Capacity Proof.RVSimAddr Proof.RVSimTop Proof.RVHDefs Proof.RVHFrag Proof.X86HAnn Proof.RVHSimProgA Proof.RVHSimTop Proof.RVHSimCor.
From SCC Require Model.Heap Proof.AxHeapTyping Proof.X86HSimExample.
Import ListNotations.
Open Scope Z_scope.

Fixpoint fits_b (fuel : nat) (p : prog) (c : hconf) : bool :=
  (Heap.frontier (hc_heap c) + 64 <=? LIMIT) &&
  match fuel with
  | O => false
  | S f =>
      match hstep p (hc_env c) (hc_heap c) (hc_stmt c) with
      | HEnd _ => true
      | HStep ops he' s' _ => fits_b f p (mkhc he' (hrun ops (hc_heap c)) s')
      end
  end.
Definition fits_run (fuel : nat) (p : prog) (args : list Z) : bool :=
  match pdefs p with
  | d :: _ => match entry_env d args with Some e => fits_b fuel p (hinit HEAP_BASE d e) | None => true end
  | [] => true
  end.

Theorem fits_run_sound fuel p args : fits_run fuel p args = true -> heap_fits p args.
Proof. exact (X86HSimExample.fits_run_sound fuel p args). Qed.

Section Ex.
Local Open Scope string_scope.
Local Open Scope N_scope.
Definition hi (n : string) (k : N) : ident := (n, k).
Definition HCont := Decl ("Cont", 0).
Definition HListT := Decl ("List", 0).
Definition HRecT := Decl ("Rec", 0).
Definition he_ (x : ident) := mkb x Ext I64.
Definition hpl (x : ident) := mkb x Prd HListT.
Definition hck (x : ident) := mkb x Cns HCont.

Definition rh_types : list tydecl :=
  [ mkt ("Cont", 0) [mkx (hi "Ret" 0) [he_ (hi "x" 0)]];
    mkt ("List", 0) [mkx (hi "Nil" 0) []; mkx (hi "Cons" 0) [he_ (hi "x" 0); hpl (hi "xs" 0)]];
    mkt ("Rec", 0) [mkx (hi "R3" 0) [he_ (hi "a" 0); hpl (hi "l" 0); hpl (hi "m" 0)]] ].

(* main(n, w): k = { Ret(r) => s = r + w; exit s }  (captures w); z = 0; loop(n, z, k) *)
Definition rh_main_ctx : ctx := [he_ (hi "n" 1); he_ (hi "w" 5)].
Definition rh_main_body : stmt :=
  Create (hi "k" 2) HCont None
    [ (hi "Ret" 0, [he_ (hi "r" 3)],
        Op (hi "r" 3) Sum (hi "w" 5) (hi "s" 6) (Exit (hi "s" 6))) ]
  (Literal 0 (hi "z" 4)
  (Call (hi "loop" 0) [he_ (hi "n" 1); he_ (hi "z" 4); hck (hi "k" 2)])).

(* loop(j, acc, k): if j == 0 then k.Ret(acc) else
     nil = Nil; l1 = Cons(j, nil); l2 = Cons(j, l1); r = R3(acc, l2, l2)
     switch r { R3(a, l, m) =>
       switch l { Nil => k.Ret(a);
                  Cons(y, ys) => switch m { Nil => k.Ret(y);
                                            Cons(y2, ys2) => j' = j - 1; acc' = acc + y2; loop(j', acc', k) } } } *)
Definition rh_loop_ctx : ctx := [he_ (hi "j" 10); he_ (hi "acc" 11); hck (hi "k" 12)].
Definition rh_loop_body : stmt :=
  IfC Eq (hi "j" 10) None
    (Invoke (hi "k" 12) (hi "Ret" 0) HCont [he_ (hi "acc" 11)])
    (Let (hi "nil" 13) HListT (hi "Nil" 0) []
    (Let (hi "l1" 14) HListT (hi "Cons" 0) [he_ (hi "j" 10); hpl (hi "nil" 13)]
    (Let (hi "l2" 15) HListT (hi "Cons" 0) [he_ (hi "j" 10); hpl (hi "l1" 14)]
    (Let (hi "r" 16) HRecT (hi "R3" 0) [he_ (hi "acc" 11); hpl (hi "l2" 15); hpl (hi "l2" 15)]
    (Switch (hi "r" 16) HRecT
      [ (hi "R3" 0, [he_ (hi "a" 17); hpl (hi "l" 19); hpl (hi "m" 21)],
          Switch (hi "l" 19) HListT
            [ (hi "Nil" 0, [], Invoke (hi "k" 12) (hi "Ret" 0) HCont [he_ (hi "a" 17)]);
              (hi "Cons" 0, [he_ (hi "y" 22); hpl (hi "ys" 23)],
                 Switch (hi "m" 21) HListT
                   [ (hi "Nil" 0, [], Invoke (hi "k" 12) (hi "Ret" 0) HCont [he_ (hi "y" 22)]);
                     (hi "Cons" 0, [he_ (hi "y2" 27); hpl (hi "ys2" 28)],
                        Literal 1 (hi "one" 24)
                        (Op (hi "j" 10) Sub (hi "one" 24) (hi "j2" 25)
                        (Op (hi "acc" 11) Sum (hi "y2" 27) (hi "acc2" 26)
                        (Call (hi "loop" 0) [he_ (hi "j2" 25); he_ (hi "acc2" 26); hck (hi "k" 12)])))) ]) ]) ]))))).

Definition rh_prog : prog :=
  mkp [mkd (hi "main" 0) rh_main_ctx rh_main_body; mkd (hi "loop" 0) rh_loop_ctx rh_loop_body] rh_types 28.
End Ex.
Definition rh_lin : prog := linearize rh_prog.

Definition rh_code : list rcode := match rv_compile rh_lin 0 with Ok (cs, _, _) => cs | Err _ => [] end.

Lemma rh_hypotheses :
  h_frag rh_lin = true /\ SimFrag.entry_int rh_lin = true /\ lin_check_prog rh_lin = true /\ ann_check_prog rh_lin = true /\
  (exists lc', rv_compile rh_lin 0 = Ok (rh_code, 2%nat, lc')) /\ asm_wf rh_code = None /\ code_small rh_code = true /\
  Nat.leb (main_arity rh_lin) 14 = true /\ fits_run 2000 rh_lin [3; 100] = true.
Proof.
  split; [vm_compute; reflexivity|]. split; [vm_compute; reflexivity|]. split; [vm_compute; reflexivity|].
  split; [vm_compute; reflexivity|].
  split; [eexists; vm_compute; reflexivity|]. split; [vm_compute; reflexivity|]. split; [vm_compute; reflexivity|].
  split; vm_compute; reflexivity.
Qed.

(* the theorem applies: there are step counts for which the RISC-V run gives the observation of the linear machine ... *)
Lemma rh_simulated : exists outer inner, fst (run_rv outer inner rh_code [3; 100]) = run_linear 2000 rh_lin [3; 100].
Proof.
  destruct rh_hypotheses as (H1 & H2 & H3 & H4 & (lc' & H5) & H6 & H7 & H8 & H9).
  refine (rv_codegen_simulates rh_lin 0 rh_code 2 lc' [3; 100] 2000 _ H1 H2 H3 H4 H5 H6 H7 H8 eq_refl
            (fits_run_sound 2000 _ _ H9) eq_refl _).
  vm_compute. discriminate.
Qed.
(* ... and, evaluated, both sides: three iterations, each allocating, sharing, loading and dropping objects; the
   closure adds the captured 100 *)
Lemma rh_runs :
  run_linear 2000 rh_lin [3; 100] = ([], OExit 106) /\
  fst (run_rv 20 2000 rh_code [3; 100]) = ([], OExit 106).
Proof. split; vm_compute; reflexivity. Qed.
