(* C11 on AArch64: a whole `Substitute` on the ISA semantics, composed from
   (i)   Proof/A64PM.v          the parallel moves perform the assignment simultaneously,
   (ii)  Proof/SubstGraph.v     the move graph of a Substitute has in-degree <= 1 (+ its edges),
   (iii) Proof/SubstGraph.v + Proof/A64MemSubst.v   one erase / share per object variable and their meaning.
   Scratch state on this back end: X2 (TEMP), X3 (TEMP2), the flags. *)
From Coq Require Import List ZArith NArith String Bool Lia FMapPositive Permutation Sorted.
From SCC Require Import Base.Sexp Lang.AxSyn Sem.AxSem Model.ParMoves Model.Backend Model.A64 Sem.A64Sem
     Generated.Constants Proof.A64State Proof.A64ImmHw Proof.A64Imm Proof.A64Sel Proof.A64PM Proof.A64Exec Proof.A64MemSubst
     Proof.SubstGraph Proof.SubstBackends.
From SCC Require Proof.A64MemTop Proof.X86MemStore.
Import ListNotations.
Open Scope Z_scope.

Notation atpos := (tpos a64_backend).

Lemma gp_operand_ok n : n <> 2%N -> n <> 3%N -> operand_ok (AR (X n)).
Proof.
  intros N2 N3. unfold operand_ok; cbn [loc_ok gp]. change TEMP with (X 2). change TEMP2 with (X 3).
  split; [exact I|]. split; intros Q; inversion Q; contradiction.
Qed.

(* every temporary the numbering hands out is a variable temporary: a register X4.. or a spill slot
   1.., never SP, XZR, X0 (HEAP), X1 (FREE), X2, X3 *)
Lemma tfp_operand_ok p t : temporary_from_position p = Ok t -> operand_ok t /\ t <> AR FREE /\ t <> AR HEAP.
Proof.
  unfold temporary_from_position. change RESERVED with 4%N. change REGISTER_NUM with 30%N. change RESERVED_SPILLS with 1%N.
  change SPILL_NUM with 256%N.
  destruct (N.ltb_spec (p + 4) 30) as [H|H].
  - intros E; injection E as <-. split; [apply gp_operand_ok; lia|].
    change FREE with (X 1). change HEAP with (X 0). split; intros Q; injection Q; lia.
  - destruct (N.ltb_spec (p + 4 - 30 + 1) 256) as [H2|H2]; [|discriminate].
    intros E; injection E as <-. unfold operand_ok; cbn [loc_ok]. unfold slot_ok. change SPILL_NUM with 256%N.
    repeat split; try discriminate; exact H2.
Qed.
Lemma atpos_operand_ok n i t : atpos n i = Ok t -> operand_ok t /\ t <> AR FREE /\ t <> AR HEAP.
Proof. apply tfp_operand_ok. Qed.

(* a variable location reads the same in two states that agree on the stack and on all registers
   but X2, X3 and FREE *)
Lemma lget_agree s s0 sp t :
  operand_ok t -> t <> AR FREE ->
  (forall r, r <> TEMP -> r <> TEMP2 -> r <> FREE -> rget s r = rget s0 r) -> stack s = stack s0 ->
  lget s sp t = lget s0 sp t.
Proof.
  intros (L & N1 & N2) NF R ST. destruct t as [r|p]; cbn [lget].
  - apply R; congruence.
  - unfold sget. now rewrite ST.
Qed.

Lemma frame_ok_agree s s0 sp :
  (forall r, r <> TEMP -> r <> TEMP2 -> r <> FREE -> rget s r = rget s0 r) -> frame_ok s0 sp -> frame_ok s sp.
Proof.
  intros R [A B]. split; [|exact B]. change (spv s) with (rget s SP). rewrite R; [exact A|discriminate|discriminate|discriminate].
Qed.

Definition pm_instr (c : acode) : Prop :=
  match c with
  | MOVR (X _) (X _) => True
  | LDR (X _) SP i | STR (X _) SP i => exists p, slot_ok p /\ i = stack_offset p
  | _ => False
  end.
Definition outside_same (s s' : astate) (sp : Z) : Prop :=
  (forall k, (forall p, slot_ok p -> k <> key (slot_addr sp p)) -> PM.find k (stack s') = PM.find k (stack s)) /\
  flags s' = flags s.
Lemma pm_frame im cs : forall s s' sp,
  Forall pm_instr cs -> frame_ok s sp -> run_straight im cs s = MOk s' -> outside_same s s' sp.
Proof.
  induction cs as [|c cs IH]; intros s s' sp FA F E.
  - cbn in E. inversion E; subst. split; auto.
  - inversion FA as [|? ? Pc FA']; subst. cbn [run_straight] in E.
    assert (ST : exists s1, step im c s = Next s1 /\ frame_ok s1 sp /\ outside_same s s1 sp).
    { destruct c; cbn [pm_instr] in Pc; try contradiction.
      - destruct d; try contradiction. destruct s0; try contradiction.
        eexists. split; [reflexivity|]. split; [apply frame_ok_rset; [discriminate|exact F]|]. split; reflexivity.
      - destruct d; try contradiction. destruct b; try contradiction. destruct Pc as (p & Pp & ->).
        eexists. split; [apply (step_LDR_slot im s sp F); exact Pp|].
        split; [apply frame_ok_rset; [discriminate|exact F]|]. split; reflexivity.
      - destruct s0; try contradiction. destruct b; try contradiction. destruct Pc as (p & Pp & ->).
        eexists. split; [apply (step_STR_slot im s sp F); exact Pp|].
        split; [apply frame_ok_sset; exact F|]. split; [|reflexivity].
        intros k Hk. unfold sset. cbn [stack]. destruct (rget s (X n)); [apply PM.gso|apply PM.gro]; apply Hk; exact Pp. }
    destruct ST as (s1 & St & F1 & (O1 & Fl1)). rewrite St in E.
    destruct (IH s1 s' sp FA' F1 E) as (O2 & Fl2). split; [|congruence].
    intros k Hk. rewrite O2 by exact Hk. apply O1; exact Hk.
Qed.

Lemma emit_pinstr_pm i : pinstr_ok atemp operand_ok i -> Forall pm_instr (emit_pinstr a64_backend false i).
Proof.
  destruct i as [d src|t|t]; cbn [pinstr_ok emit_pinstr b_mov b_store_temporary b_restore_temporary a64_backend a64_backend_with].
  (* saving and restoring the cycle-breaking temporary: alike *)
  2, 3: intros (Lt & _ & _); unfold a_store_temporary, a_restore_temporary; change TEMP with (X 2);
    destruct t as [[r| |]|q]; cbn [loc_ok gp] in *; try tauto; repeat constructor; cbn [pm_instr]; eauto.
  intros ((Ld & _ & _) & (Ls & _ & _)). unfold a_mov. change TEMP2 with (X 3).
  destruct src as [[sr| |]|sq], d as [[tr| |]|tq]; cbn [loc_ok gp] in *; try tauto;
    cbn [move_from_register move_to_register app]; repeat constructor; cbn [pm_instr]; eauto.
Qed.

Lemma parallel_moves_code_pm am code :
  amap_ok atemp operand_ok am -> parallel_moves_code a64_backend am = Ok code -> Forall pm_instr code.
Proof.
  intros OK E. unfold parallel_moves_code in E. fold a64_teqb in E.
  destruct (spanning_forest atemp a64_teqb (List.length (all_targets atemp am) + 2) am) as [forest|] eqn:SF; [|discriminate].
  injection E as <-.
  assert (PM : parallel_moves atemp a64_teqb (List.length (all_targets atemp am) + 2) am = Some (flat_map (root_moves atemp) forest))
    by (unfold parallel_moves; now rewrite SF).
  assert (CODE : flat_map (emit_root a64_backend) forest = flat_map (emit_pinstr a64_backend false) (flat_map (root_moves atemp) forest)).
  { rewrite flat_map_flat_map. reflexivity. }
  rewrite CODE.
  pose proof (parallel_moves_mentions atemp a64_teqb a64_teqb_spec operand_ok _ am _ OK PM) as MEN.
  clear PM CODE. induction MEN as [|i is Hi _ IH]; cbn [flat_map]; [constructor|]. apply Forall_app; split; [apply emit_pinstr_pm; exact Hi|exact IH].
Qed.


(* the parallel-move theorem of Proof/A64PM.v together with the frame: besides the assignment, only
   X2, X3 and spill slots can change - heap, output, flags, SP and the stack outside the spill area do not *)
Theorem a64_parallel_moves_frame_ok im (am : amap atemp) (code : list acode) s sp :
  indeg1 atemp a64_teqb am -> nodup_targets atemp a64_teqb am -> amap_ok atemp operand_ok am ->
  parallel_moves_code a64_backend am = Ok code ->
  frame_ok s sp ->
  exists s', run_straight im code s = MOk s' /\
    (forall a b, edge atemp a64_teqb am a b -> lget s' sp b = lget s sp a) /\
    (forall u, operand_ok u -> (forall a, ~ edge atemp a64_teqb am a u) -> lget s' sp u = lget s sp u) /\
    frame_ok s' sp /\ heap s' = heap s /\ out s' = out s /\ flags s' = flags s /\
    (forall k, (forall p, slot_ok p -> k <> key (slot_addr sp p)) -> PM.find k (stack s') = PM.find k (stack s)).
Proof.
  intros ID NT OK E F.
  destruct (a64_parallel_moves_ok im am code s sp F ID NT OK E) as (s' & R & F' & H' & O' & P1 & P2).
  destruct (pm_frame im code s s' sp (parallel_moves_code_pm am code OK E) F R) as (OUT & FL).
  exists s'. repeat split; auto; apply F'.
Qed.
Theorem a64_parallel_moves_total (am : amap atemp) :
  indeg1 atemp a64_teqb am -> exists code, parallel_moves_code a64_backend am = Ok code.
Proof.
  intros ID. unfold parallel_moves_code. fold a64_teqb.
  pose proof (parallel_moves_terminates atemp a64_teqb a64_teqb_spec am ID) as H. unfold parallel_moves in H.
  destruct (spanning_forest atemp a64_teqb _ am); [eexists; reflexivity|]. exfalso. apply H. reflexivity.
Qed.

Definition ptr_of (s : astate) (sp : Z) (t : atemp) : Z := match lget s sp t with Some p => p | None => 0 end.
Definition rc_temp (o : @rc_op atemp) : atemp := match o with RcErase t => t | RcShare t _ => t end.
Definition rc_ok (s0 : astate) (sp : Z) (o : @rc_op atemp) : Prop :=
  operand_ok (rc_temp o) /\ rc_temp o <> AR FREE /\
  (exists p, lget s0 sp (rc_temp o) = Some p /\ (p = 0 \/ block_ok p)).
Definition rc_h (s0 : astate) (sp : Z) (o : @rc_op atemp) (hf : PM.t Z * Z) : PM.t Z * Z :=
  match o with
  | RcErase t => erase_h (ptr_of s0 sp t) hf
  | RcShare t n => share_h (ptr_of s0 sp t) (Z.of_N n) hf
  end.

(* one operation, from a state that agrees with s0 on the variables *)
Lemma a64_emit_rc_op_ok im s0 sp o pc lc s f :
  rc_ok s0 sp o ->
  (forall r, r <> TEMP -> r <> TEMP2 -> r <> FREE -> rget s r = rget s0 r) -> stack s = stack s0 ->
  code_at im pc (fst (emit_rc_op a64_backend o lc)) -> labels_at im pc (fst (emit_rc_op a64_backend o lc)) ->
  frame_ok s0 sp -> rget s FREE = Some f ->
  exists s1 f1, exec_to im pc s (padd pc (List.length (fst (emit_rc_op a64_backend o lc)))) s1 /\
    rget s1 FREE = Some f1 /\ (heap s1, f1) = rc_h s0 sp o (heap s, f) /\
    (forall r, r <> TEMP -> r <> TEMP2 -> r <> FREE -> rget s1 r = rget s r) /\ stack s1 = stack s /\ out s1 = out s.
Proof.
  intros (VT & NF & (p & Hp & Vp)) R ST CA LA F0 FR.
  pose proof (frame_ok_agree s s0 sp R F0) as F.
  assert (Hp' : lget s sp (rc_temp o) = Some p) by (rewrite (lget_agree s s0 sp _ VT NF R ST); exact Hp).
  assert (PO : ptr_of s0 sp (rc_temp o) = p) by (unfold ptr_of; now rewrite Hp).
  destruct o as [t|t n]; cbn [emit_rc_op b_erase b_share_n a64_backend a64_backend_with rc_temp rc_h] in *; rewrite PO.
  - destruct (a64_erase_ok im pc s sp t lc p f CA LA F VT NF Hp' Vp FR) as (s1 & f1 & X).
    exists s1, f1. exact X.
  - destruct (a64_share_ok im pc s sp t n lc p f CA LA F VT Hp' Vp) as (s1 & X1 & X3 & X4 & X5 & X6).
    exists s1, f. split; [exact X1|]. split; [rewrite X4; [exact FR|discriminate|discriminate]|]. auto.
Qed.

Lemma a64_emit_rc_ok im s0 sp : forall ops pc lc s f,
  Forall (rc_ok s0 sp) ops ->
  (forall r, r <> TEMP -> r <> TEMP2 -> r <> FREE -> rget s r = rget s0 r) -> stack s = stack s0 ->
  code_at im pc (fst (emit_rc a64_backend ops lc)) -> labels_at im pc (fst (emit_rc a64_backend ops lc)) ->
  frame_ok s0 sp -> rget s FREE = Some f ->
  exists s' f', exec_to im pc s (padd pc (List.length (fst (emit_rc a64_backend ops lc)))) s' /\
    rget s' FREE = Some f' /\
    (heap s', f') = fold_left (fun hf o => rc_h s0 sp o hf) ops (heap s, f) /\
    (forall r, r <> TEMP -> r <> TEMP2 -> r <> FREE -> rget s' r = rget s0 r) /\ stack s' = stack s0 /\ out s' = out s.
Proof.
  induction ops as [|o ops IH]; intros pc lc s f OK R ST CA LA F0 FR.
  - exists s, f. cbn. repeat split; auto. constructor.
  - pose proof (Forall_inv OK) as Oo. apply Forall_inv_tail in OK as Or.
    cbn [emit_rc] in *. destruct (emit_rc_op a64_backend o lc) as [c1 lc1] eqn:E1.
    destruct (emit_rc a64_backend ops lc1) as [c2 lc2] eqn:E2. cbn [fst] in *.
    apply code_at_app in CA as [CA1 CA2]. apply labels_at_app in LA as [LA1 LA2].
    pose proof (a64_emit_rc_op_ok im s0 sp o pc lc s f Oo R ST) as STEP. rewrite E1 in STEP.
    destruct (STEP CA1 LA1 F0 FR) as (s1 & f1 & X1 & X2 & X3 & X4 & X5 & X6).
    pose proof (IH (padd pc (List.length c1)) lc1 s1 f1 Or) as REST. rewrite E2 in REST.
    destruct REST as (s2 & f2 & Y1 & Y2 & Y3 & Y4 & Y5 & Y6); auto.
    { intros r A B C. rewrite X4; auto. }
    { congruence. }
    exists s2, f2. split; [|split; [exact Y2|split; [|split; [exact Y4|split; [exact Y5|congruence]]]]].
    + rewrite app_length, padd_add. eapply exec_to_trans; eauto.
    + cbn [fold_left]. rewrite <- X3. exact Y3.
Qed.

Lemma lookup_of_In (am : amap atemp) k ts :
  NoDup (map fst am) -> In (k, ts) am -> lookup atemp a64_teqb am k = Some ts.
Proof.
  induction am as [|[k1 t1] am IH]; cbn; intros ND Hin; [destruct Hin|].
  inversion ND as [|? ? Hn ND']; subst. destruct Hin as [E|Hin].
  - inversion E; subst. destruct (a64_teqb_spec k k); congruence.
  - destruct (a64_teqb_spec k k1) as [->|N]; [|auto]. exfalso. apply Hn. apply in_map_iff. exists (k1, ts); auto.
Qed.

(* what weakening_contraction_counts says of the operations emitted for the object variables in `order` *)
Definition rc_ops_for re (order : list (nat * binding)) ops : Prop :=
  Forall2 (fun ib o => exists t, atpos Fst (fst ib) = Ok t /\ o = rc_op_for t (count_targets re (snd ib))) order ops.

Lemma rc_ops_tpos re order ops i b : rc_ops_for re order ops -> In (i, b) order -> exists t, atpos Fst i = Ok t.
Proof.
  unfold rc_ops_for. induction 1 as [|x o order' ops' (t & Ht & _) _ IH]; intros Hin; [destruct Hin|].
  destruct Hin as [->|Hin]; [exists t; exact Ht|exact (IH Hin)].
Qed.
Lemma rc_ops_ok s sp re order ops :
  rc_ops_for re order ops ->
  (forall i b t, In (i, b) order -> atpos Fst i = Ok t -> exists p, lget s sp t = Some p /\ (p = 0 \/ block_ok p)) ->
  Forall (rc_ok s sp) (List.concat ops).
Proof.
  unfold rc_ops_for. intros F2 PTR. apply Forall_concat. induction F2 as [|[i b] o order' ops' (t & Ht & ->) _ IH]; constructor.
  - cbn [fst snd] in *. destruct (atpos_operand_ok Fst i t Ht) as (VT & NF & _).
    assert (K : forall o, rc_temp o = t -> rc_ok s sp o).
    { intros o <-. split; [exact VT|]. split; [exact NF|]. exact (PTR i b _ (or_introl eq_refl) Ht). }
    destruct (count_targets re b) as [|[|k]]; cbn [rc_op_for]; repeat constructor; apply K; reflexivity.
  - apply IH. intros i' b' t' Hin. apply (PTR i' b'). right. exact Hin.
Qed.
(* the fold over the emitted operations = the fold over the variables *)
Lemma rc_ops_fold s sp re ptr order ops :
  rc_ops_for re order ops -> (forall i t, atpos Fst i = Ok t -> ptr i = ptr_of s sp t) ->
  forall hf, fold_left (fun hf o => rc_h s sp o hf) (List.concat ops) hf =
             fold_left (fun hf (ib : nat * binding) => count_h (ptr (fst ib)) (count_targets re (snd ib)) hf) order hf.
Proof.
  unfold rc_ops_for. intros F2 P. induction F2 as [|[i b] o order' ops' (t & Ht & ->) _ IH]; intros hf; [reflexivity|].
  cbn [List.concat fold_left fst snd] in *. rewrite fold_left_app, <- IH. f_equal.
  rewrite (P i t Ht). destruct (count_targets re b) as [|[|k]]; reflexivity.
Qed.

(* every temporary of the move graph is a variable temporary *)
Lemma connections_amap_ok ctx re am :
  NoDup (ids ctx) -> NoDup (new_ids re) -> connections a64_backend (transpose re ctx) ctx (map fst re) = Ok am ->
  amap_ok atemp operand_ok am.
Proof.
  intros NDc NDn CN.
  destruct (transpose_connections_indeg1 a64_backend a64_backend_ok ctx re am NDc NDn CN) as (_ & _ & SRT & KEYS).
  pose proof (connections_edges a64_backend a64_backend_ok ctx re am NDc NDn CN) as EDG.
  apply (sorted_nodup atemp_compare (cmp_eq a64_backend a64_backend_ok)) in SRT.
  intros k ts Hin. split.
  - destruct (KEYS k) as (i & bi & n & _ & _ & Hp); [apply in_map_iff; exists (k, ts); auto|].
    apply (atpos_operand_ok n i k Hp).
  - apply Forall_forall. intros t Ht.
    assert (E : edge atemp a64_teqb am k t) by (exists ts; split; [apply lookup_of_In; assumption|exact Ht]).
    apply EDG in E as (i & j & bi & pj & n & _ & _ & _ & _ & _ & Hb). apply (atpos_operand_ok n j t Hb).
Qed.

(* the code of a Substitute: reference-count updates, the parallel moves, the branch to the callee *)
Lemma code_substitute_inv types re l args ctx lc code lc' :
  code_statement a64_backend types (Substitute re (Call l args)) ctx lc = Ok (code, lc') ->
  exists c1 lc1 am c2,
    code_weakening_contraction a64_backend (transpose re ctx) ctx lc = Ok (c1, lc1) /\
    connections a64_backend (transpose re ctx) ctx (map fst re) = Ok am /\
    parallel_moves_code a64_backend am = Ok c2 /\
    code = (c1 ++ c2 ++ [B (show_ident l +++ "_")])%list /\ lc' = lc1.
Proof.
  cbn [code_statement]. unfold code_exchange.
  destruct (code_weakening_contraction a64_backend (transpose re ctx) ctx lc) as [[c1 lc1]|e]; [|discriminate].
  cbn [rbind]. destruct (connections a64_backend (transpose re ctx) ctx (map fst re)) as [am|e]; [|discriminate].
  cbn [rbind]. destruct (parallel_moves_code a64_backend am) as [c2|e] eqn:PMC; [|discriminate].
  cbn [rbind]. intros E. injection E as <- <-. exists c1, lc1, am, c2. repeat split. exact PMC.
Qed.

Theorem a64_substitute_ok im pc types ctx re l args lc code lc' s sp f :
  NoDup (ids ctx) -> NoDup (new_ids re) ->
  code_statement a64_backend types (Substitute re (Call l args)) ctx lc = Ok (code, lc') ->
  code_at im pc code -> labels_at im pc code ->
  frame_ok s sp -> rget s FREE = Some f ->
  (* every object variable holds a null pointer or a pointer to a heap block *)
  (forall i b t, nth_error ctx i = Some b -> is_obj b = true -> atpos Fst i = Ok t ->
     exists p, lget s sp t = Some p /\ (p = 0 \/ block_ok p)) ->
  exists (s' : astate) (f' : Z) (order : list (nat * binding)) (ptr : nat -> Z),
    (* control arrives at the final branch to the callee *)
    exec_to im pc s (padd pc (List.length code - 1)) s' /\
    nth_error code (List.length code - 1) = Some (B (show_ident l +++ "_")) /\
    (* ONE simultaneous assignment: new variable j gets what its source i held *)
    (forall i j bi pj n a b, nth_error ctx i = Some bi -> nth_error re j = Some pj -> idn (snd pj) = idn (bvar bi) ->
       (n = Snd \/ bchi bi <> Ext) -> atpos n i = Ok a -> atpos n j = Ok b -> lget s' sp b = lget s sp a) /\
    (* reference counts: every object variable exactly once, k targets: erase / nothing / share (k-1) *)
    Permutation (map snd order) (filter is_obj ctx) /\
    (forall i b, In (i, b) order -> nth_error ctx i = Some b /\ exists t, atpos Fst i = Ok t /\ lget s sp t = Some (ptr i)) /\
    rget s' FREE = Some f' /\
    (heap s', f') = fold_left (fun hf ib => count_h (ptr (fst ib)) (count_targets re (snd ib)) hf) order (heap s, f) /\
    (* nothing else *)
    (forall u, operand_ok u -> u <> AR FREE -> (forall j n, atpos n j = Ok u -> (List.length re <= j)%nat) -> lget s' sp u = lget s sp u) /\
    rget s' HEAP = rget s HEAP /\ frame_ok s' sp /\ out s' = out s /\
    (forall k, (forall p, slot_ok p -> k <> key (slot_addr sp p)) -> PM.find k (stack s') = PM.find k (stack s)).
Proof.
  intros NDc NDn CS CA LA F FR PTR.
  (* the conclusion is large and every elimination below repeats it as its result type: name it meanwhile *)
  match goal with |- ?concl => set (G := concl) end.
  destruct (code_substitute_inv types re l args ctx lc code lc' CS) as (c1 & lc1 & am & c2 & WC & CN & PMC & -> & ->). clear CS.
  apply code_at_app in CA as [CA1 CA23]. apply code_at_app in CA23 as [CA2 _].
  apply labels_at_app in LA as [LA1 _].
  (* phase 1: reference counts *)
  destruct (weakening_contraction_counts a64_backend ctx re lc c1 lc1 NDc WC) as (order & PERM & _ & ORD & ops & F2 & EM).
  set (ptr := fun i : nat => match atpos Fst i with Ok t => ptr_of s sp t | Err _ => 0 end).
  assert (OBJ : forall i b, In (i, b) order -> is_obj b = true).
  { intros i b Hin. assert (In b (map snd order)) as Hb by (apply in_map_iff; exists (i, b); auto).
    eapply Permutation_in in Hb; [|exact PERM]. apply filter_In in Hb. tauto. }
  assert (PTR' : forall i b t, In (i, b) order -> atpos Fst i = Ok t -> exists p, lget s sp t = Some p /\ (p = 0 \/ block_ok p)).
  { intros i b t Hin. apply (PTR i b t (ORD i b Hin) (OBJ i b Hin)). }
  assert (EMc : c1 = fst (emit_rc a64_backend (List.concat ops) lc)) by (now rewrite <- EM).
  rewrite EMc in CA1, LA1.
  destruct (a64_emit_rc_ok im s sp (List.concat ops) pc lc s f (rc_ops_ok s sp re order ops F2 PTR')
              (fun r _ _ _ => eq_refl) eq_refl CA1 LA1 F FR)
    as (s1 & f1 & X1 & X2 & X3 & X4 & X5 & X6).
  rewrite <- EMc in X1. clear EMc CA1 LA1 EM WC.
  pose proof (frame_ok_agree s1 s sp X4 F) as F1.
  assert (AG : forall t, operand_ok t -> t <> AR FREE -> lget s1 sp t = lget s sp t).
  { intros t VT NF. apply lget_agree; auto. }
  (* phase 2: the parallel moves *)
  destruct (transpose_connections_indeg1 a64_backend a64_backend_ok ctx re am NDc NDn CN) as (ID & NT & _ & _).
  pose proof (connections_edges a64_backend a64_backend_ok ctx re am NDc NDn CN) as EDG.
  pose proof (connections_amap_ok ctx re am NDc NDn CN) as AMOK.
  destruct (a64_parallel_moves_frame_ok im am c2 s1 sp ID NT AMOK PMC F1) as (s2 & E2 & P1 & P2 & F2' & H2 & O2 & _ & OUT).
  pose proof (run_straight_exec_to im c2 _ s1 s2 CA2 E2) as X2'.
  assert (NOEDGE : forall u, (forall j n, atpos n j = Ok u -> False) -> forall a, ~ edge atemp a64_teqb am a u).
  { intros u NO a E. apply EDG in E as (i & j & bi & pj & n & _ & _ & _ & _ & _ & Hb). eapply NO; eauto. }
  subst G. exists s2, f1, order, ptr.
  replace (List.length (c1 ++ c2 ++ [B (show_ident l +++ "_")]) - 1)%nat with (List.length c1 + List.length c2)%nat
    by (rewrite !app_length, Nat.add_assoc; symmetry; apply Nat.add_sub).
  split; [|split; [|split; [|split; [|split; [|split; [|split; [|split; [|split; [|split; [|split]]]]]]]]]].
  - rewrite padd_add. eapply exec_to_trans; eauto.
  - rewrite app_assoc, nth_error_app2; rewrite app_length; [rewrite Nat.sub_diag; reflexivity|apply le_n].
  - intros i j bi pj n a b Hi Hj Hid Hn Ha Hb.
    assert (edge atemp a64_teqb am a b) as E by (apply EDG; exists i, j, bi, pj, n; auto 10).
    rewrite (P1 a b E). destruct (atpos_operand_ok n i a Ha) as (VT & NF & _). apply AG; auto.
  - exact PERM.
  - intros i b Hin. split; [apply ORD; exact Hin|].
    destruct (rc_ops_tpos re order ops i b F2 Hin) as (t & Ht).
    exists t. split; [exact Ht|]. destruct (PTR' i b t Hin Ht) as (p & Hp & _).
    unfold ptr, ptr_of. rewrite Ht, Hp. reflexivity.
  - rewrite <- X2. apply (P2 (AR FREE)).
    + change FREE with (X 1). apply gp_operand_ok; discriminate.
    + apply NOEDGE. intros j n Hb. destruct (atpos_operand_ok n j _ Hb) as (_ & N & _). congruence.
  - rewrite H2, X3. apply rc_ops_fold; [exact F2|]. intros i t Ht. unfold ptr. rewrite Ht. reflexivity.
  - intros u VT NF NEW. rewrite <- (AG u VT NF). apply P2; auto.
    intros a E. apply EDG in E as (i & j & bi & pj & n & _ & Hj & _ & _ & _ & Hb).
    specialize (NEW j n Hb). assert (j < List.length re)%nat by (apply nth_error_Some; congruence). lia.
  - assert (VH : operand_ok (AR HEAP)) by (change HEAP with (X 0); apply gp_operand_ok; discriminate).
    assert (NH : AR HEAP <> AR FREE) by discriminate.
    change (rget s HEAP) with (lget s sp (AR HEAP)). rewrite <- (AG _ VH NH). apply (P2 (AR HEAP)); [exact VH|].
    apply NOEDGE. intros j n Hb. destruct (atpos_operand_ok n j _ Hb) as (_ & _ & N). congruence.
  - exact F2'.
  - congruence.
  - intros k Hk. rewrite (OUT k Hk). now rewrite X5.
Qed.

(* the hypotheses of a64_substitute_ok are satisfiable:
   context a (object), b (integer), c (object); new context b, a, a: the two variables swap places
   (a cycle through X5/X7 broken via X2), a is duplicated (header += 1) and c is dropped (erase).
   The code sits alone in an image; a points to a block, c is null. *)
Definition ex_T : ty := Decl ("T"%string, 0%N).
Definition ex_ctx : ctx := [mkb ("a"%string, 1%N) Prd ex_T; mkb ("b"%string, 2%N) Ext I64; mkb ("c"%string, 3%N) Prd ex_T].
Definition ex_re : list (binding * ident) :=
  [(mkb ("b"%string, 4%N) Ext I64, ("b"%string, 2%N)); (mkb ("a"%string, 5%N) Prd ex_T, ("a"%string, 1%N));
   (mkb ("a"%string, 6%N) Prd ex_T, ("a"%string, 1%N))].
Definition ex_code : list acode :=
  match code_statement a64_backend [] (Substitute ex_re (Call ("f"%string, 0%N) [])) ex_ctx 0 with Ok (c, _) => c | Err _ => [] end.
Definition ex_state : astate :=
  {| regs := PM.add (N.succ_pos 4) (HEAP_BASE + 64) (PM.add (N.succ_pos 8) 0 (PM.add (N.succ_pos 1) (HEAP_BASE + 128) (PM.empty Z)));
     spv := Some (STACK_TOP - 2144); heap := PM.empty Z; stack := PM.empty Z; flags := None; out := []; hw := HEAP_BASE - 8 |}.
Example a64_substitute_hyps_satisfiable :
  NoDup (ids ex_ctx) /\ NoDup (new_ids ex_re) /\
  code_statement a64_backend [] (Substitute ex_re (Call ("f"%string, 0%N) [])) ex_ctx 0 = Ok (ex_code, 4%N) /\
  List.length ex_code = 26%nat /\
  code_at (mk_image ex_code) 1 ex_code /\ labels_at (mk_image ex_code) 1 ex_code /\
  frame_ok ex_state (STACK_TOP - 2144) /\ rget ex_state FREE = Some (HEAP_BASE + 128) /\
  (forall i b t, nth_error ex_ctx i = Some b -> is_obj b = true -> atpos Fst i = Ok t ->
     exists p, lget ex_state (STACK_TOP - 2144) t = Some p /\ (p = 0 \/ block_ok p)).
Proof.
  split; [vm_compute; repeat constructor; cbn; intuition discriminate|].
  split; [vm_compute; repeat constructor; cbn; intuition discriminate|].
  split; [vm_compute; reflexivity|]. split; [vm_compute; reflexivity|].
  destruct (A64MemTop.mk_image_code_labels ex_code) as [HC HL]; [apply X86MemStore.nodupb_sound; vm_compute; reflexivity|].
  split; [exact HC|]. split; [exact HL|].
  split.
  { split; [reflexivity|]. unfold sp_ok, STACK_LIMIT, STACK_TOP. change SPILL_SPACE with 2048. repeat split; try reflexivity; lia. }
  split; [reflexivity|].
  intros i b t Hi Ho Ht. destruct i as [|[|[|i]]]; cbn in Hi; try (destruct i; discriminate); inversion Hi; subst; try discriminate.
  - vm_compute in Ht. inversion Ht; subst t. exists (HEAP_BASE + 64). split; [reflexivity|]. right. split; reflexivity.
  - vm_compute in Ht. inversion Ht; subst t. exists 0. split; [reflexivity|]. left; reflexivity.
Qed.
