(* Two facts about the generic parallel-move code (Model/ParMoves.v) needed to run it on a machine
   whose scratch location differs from root to root:
   1. the moves of one root never read the scratch before writing it, so what the temporaries hold
      afterwards does not depend on the scratch's initial contents;
   2. every temporary named by the emitted code is a key or a target of the assignment map. *)
From Coq Require Import List Bool Arith Lia.
From SCC Require Import Model.ParMoves.
Import ListNotations.

Section S.
Variable T : Type.
Variable eqb : T -> T -> bool.
Hypothesis eqb_spec : forall a b, reflect (a = b) (eqb a b).
Variable V : Type.

Notation exec := (exec T eqb V).
Notation tree_moves := (tree_moves T).
Notation root_moves := (root_moves T).

Definition is_restore (i : pinstr T) : bool := match i with Restore _ _ => true | _ => false end.
Definition is_save (i : pinstr T) : bool := match i with Save _ _ => true | _ => false end.

(* Mov and Save do not read the scratch, so the temporaries come out the same whatever it held; a Save overwrites it, so
   from then on the scratch is the same too *)
Lemma exec_no_restore (is : list (pinstr T)) : forall (st : T -> V) (sc sc' : V),
  forallb (fun i => negb (is_restore i)) is = true ->
  fst (exec is (st, sc)) = fst (exec is (st, sc')) /\
  (existsb is_save is = true -> snd (exec is (st, sc)) = snd (exec is (st, sc'))).
Proof.
  induction is as [|i is IH]; intros st sc sc' NR; cbn in *; [split; [reflexivity|discriminate]|].
  apply andb_true_iff in NR as [Ni NR]. destruct i as [d s|t|t]; cbn in *; try discriminate.
  - apply (IH _ sc sc' NR).
  - split; reflexivity.
Qed.

Lemma tree_moves_no_restore tr : forall p, forallb (fun i => negb (is_restore i)) (tree_moves p tr) = true.
Proof.
  induction tr as [|t cs IH] using tree_ind2; intros p; cbn; [reflexivity|].
  rewrite forallb_app. cbn. rewrite andb_true_r.
  apply forallb_forall. intros i Hi. apply in_flat_map in Hi as (c & Hc & Hi).
  rewrite Forall_forall in IH. specialize (IH c Hc t). rewrite forallb_forall in IH. auto.
Qed.
Lemma children_no_restore t cs : forallb (fun i => negb (is_restore i)) (flat_map (tree_moves t) cs) = true.
Proof.
  apply forallb_forall. intros i Hi. apply in_flat_map in Hi as (c & Hc & Hi).
  pose proof (tree_moves_no_restore c t) as H. rewrite forallb_forall in H. auto.
Qed.

Lemma refers_back_save tr : forall p, refers_back T tr = true -> existsb is_save (tree_moves p tr) = true.
Proof.
  induction tr as [|t cs IH] using tree_ind2; intros p H; cbn in *; [reflexivity|].
  rewrite existsb_app. apply orb_true_iff. left.
  apply existsb_exists in H as (c & Hc & H). rewrite Forall_forall in IH.
  specialize (IH c Hc t H). apply existsb_exists in IH as (i & Hi & Si).
  apply existsb_exists. exists i. split; auto. apply in_flat_map. eauto.
Qed.
Lemma children_save t cs : existsb (refers_back T) cs = true -> existsb is_save (flat_map (tree_moves t) cs) = true.
Proof.
  intros H. apply existsb_exists in H as (c & Hc & H).
  pose proof (refers_back_save c t H) as S. apply existsb_exists in S as (i & Hi & Si).
  apply existsb_exists. exists i. split; auto. apply in_flat_map. eauto.
Qed.

Lemma root_scratch_indep (r : root T) (st : T -> V) (sc sc' : V) :
  fst (exec (root_moves r) (st, sc)) = fst (exec (root_moves r) (st, sc')).
Proof.
  destruct r as [k cs]. cbn [ParMoves.root_moves]. rewrite !exec_app.
  destruct (exec_no_restore (flat_map (tree_moves k) cs) st sc sc' (children_no_restore k cs)) as [F S].
  destruct (existsb (refers_back T) cs) eqn:RB.
  - specialize (S (children_save k cs RB)). cbn. now rewrite F, S.
  - cbn. exact F.
Qed.

Definition pinstr_temps (i : pinstr T) : list T :=
  match i with Mov _ d s => [d; s] | Save _ t => [t] | Restore _ t => [t] end.

Lemma tree_moves_temps tr : forall p i t, In i (tree_moves p tr) -> In t (pinstr_temps i) -> t = p \/ In t (nodes T tr).
Proof.
  induction tr as [|n cs IH] using tree_ind2; intros p i t Hi Ht; cbn in *.
  - destruct Hi as [<-|[]]. cbn in Ht. intuition.
  - apply in_app_iff in Hi as [Hi|[<-|[]]].
    + apply in_flat_map in Hi as (c & Hc & Hi). rewrite Forall_forall in IH.
      destruct (IH c Hc n i t Hi Ht) as [->|H]; [right; now left|]. right; right. apply in_flat_map; eauto.
    + cbn in Ht. destruct Ht as [<-|[<-|[]]]; [right; now left|now left].
Qed.

Lemma root_moves_temps k cs i t : In i (root_moves (StartNode T k cs)) -> In t (pinstr_temps i) ->
  t = k \/ In t (flat_map (nodes T) cs).
Proof.
  cbn [ParMoves.root_moves]. intros Hi Ht. apply in_app_iff in Hi as [Hi|Hi].
  - apply in_flat_map in Hi as (c & Hc & Hi). destruct (tree_moves_temps c k i t Hi Ht) as [->|H]; [now left|].
    right. apply in_flat_map; eauto.
  - destruct (existsb _ cs); [|destruct Hi]. destruct Hi as [<-|[]]. cbn in Ht. intuition.
Qed.

Section Forest.
Variable A : amap T.
Hypothesis IDA : indeg1 T eqb A.

Lemma forest_temps fuel : forall keys pm rs,
  (forall a b, edge T eqb pm a b -> edge T eqb A a b) ->
  nodup_targets T eqb pm ->
  forest_loop T eqb fuel keys pm = Some rs ->
  forall r i t, In r rs -> In i (root_moves r) -> In t (pinstr_temps i) -> In t keys \/ In t (all_targets T A).
Proof.
  induction keys as [|k ks IH]; intros pm rs Sub NT H r i t Hr Hi Ht.
  - inversion H; subst. destruct Hr.
  - cbn [forest_loop] in H. destruct (root_for T eqb fuel pm k) as [r0|] eqn:R; [|discriminate].
    destruct (forest_loop T eqb fuel ks _) as [rs'|] eqn:F; [|discriminate]. inversion H; subst; clear H.
    assert (indeg1 T eqb pm) as ID by (intros a a' b E1 E2; eapply IDA; eauto).
    destruct Hr as [<-|Hr].
    + assert (exists cs, r0 = StartNode T k cs) as (cs & ->).
      { unfold root_for in R. destruct (lookup T eqb pm k); [|discriminate]. destruct (mapM _ _); inversion R; eauto. }
      destruct (root_for_spec T eqb eqb_spec pm ID NT fuel k cs R) as (_ & _ & HE & _).
      destruct (root_moves_temps k cs i t Hi Ht) as [->|Hn]; [left; now left|].
      right. apply in_flat_map in Hn as (c & Hc & Hn).
      destruct (nodes_have_edges T c k t Hn) as (a & Ha).
      eapply edge_all_targets. apply Sub. apply HE. apply in_flat_map. eauto.
    + destruct (IH _ rs' (fun a b E => Sub a b (proj1 (proj1 (edge_delete T eqb eqb_spec _ pm a b) E)))
                  ltac:(intros a ts L; rewrite lookup_delete in L; destruct (lookup T eqb pm a) as [ts0|] eqn:L0; [|discriminate];
                        inversion L; subst; apply NoDup_filter; eauto)
                  F r i t Hr Hi Ht) as [?|?]; [left; now right|now right].
Qed.
End Forest.

Lemma spanning_forest_temps fuel (A : amap T) rs :
  indeg1 T eqb A -> nodup_targets T eqb A ->
  spanning_forest T eqb fuel A = Some rs ->
  forall r i t, In r rs -> In i (root_moves r) -> In t (pinstr_temps i) -> In t (map fst A) \/ In t (all_targets T A).
Proof. intros ID NT H. eapply (forest_temps A ID fuel (map fst A) A rs); eauto. Qed.
End S.
