(* C13 on AArch64, the semantic part: the code the model emits for `print_i64` / `println_i64`
   (Model/A64.a_print), executed on the ISA semantics Sem/A64Sem.v whose external-call model checks
   SP = 0 (mod 16) and a defined X0, then makes X0-X17, the link register X30, the flags and every
   stack word below SP undefined.  For EVERY context: the run does not fault, the value is printed,
   and afterwards every temporary of every variable of the context (second temporary of any variable,
   first temporary of a non-integer variable: registers X4.. including X30, spill slots), HEAP (X0),
   FREE (X1), SP, the heap and the stack at and above SP are what they were before. *)
From Coq Require Import List ZArith NArith String Bool Lia FMapPositive SetoidList.
From SCC Require Import Base.Sexp Lang.AxSyn Sem.AxSem Model.Backend Model.A64 Sem.A64Sem Generated.Constants
     Proof.A64State Proof.A64Wf.
Import ListNotations.
Open Scope Z_scope.

Lemma wrap_id z : min_int <= z <= max_int -> wrap z = z.
Proof. unfold wrap, min_int, max_int, two63, two64. intros H. rewrite Z.mod_small; lia. Qed.

Definition cell_ok (a : Z) : Prop := a mod 8 = 0 /\ STACK_LIMIT <= a /\ a + 8 <= STACK_TOP.
Definition stk_set (s : astate) (a : Z) (v : option Z) : astate :=
  {| regs := regs s; spv := spv s; heap := heap s;
     stack := match v with Some z => PM.add (key a) z (stack s) | None => PM.remove (key a) (stack s) end;
     flags := flags s; out := out s; hw := hw s |}.
Lemma cell_tests a : cell_ok a -> aligned a = true /\ in_heap a = false /\ in_stack a = true.
Proof.
  intros (A & L & H). assert (IS : in_stack a = true) by (unfold in_stack; apply andb_true_iff; split; apply Z.leb_le; lia).
  split; [unfold aligned; rewrite A; reflexivity|]. split; [apply in_stack_not_heap; exact IS|exact IS].
Qed.
Lemma mstore_cell s a v : cell_ok a -> mstore s a v = MOk (stk_set s a v).
Proof. intros C. destruct (cell_tests a C) as (A & H & S). unfold mstore. rewrite A, H, S. reflexivity. Qed.
Lemma mload_cell s a : cell_ok a -> mload s a = MOk (PM.find (key a) (stack s)).
Proof. intros C. destruct (cell_tests a C) as (A & H & S). unfold mload. rewrite A, H, S. reflexivity. Qed.
Lemma find_stk_set_same s a v : PM.find (key a) (stack (stk_set s a v)) = v.
Proof. unfold stk_set; destruct v; cbn; [apply PM.gss|apply PM.grs]. Qed.
Lemma find_stk_set_other s a v k : k <> key a -> PM.find k (stack (stk_set s a v)) = PM.find k (stack s).
Proof. intros H. unfold stk_set; destruct v; cbn; [apply PM.gso|apply PM.gro]; auto. Qed.
Lemma cell_nonneg a : cell_ok a -> 0 <= a.
Proof. intros (_ & L & _). unfold STACK_LIMIT, STACK_TOP in L. lia. Qed.
Lemma pos_key a : 0 <= a -> Z.pos (key a) - 1 = a.
Proof. intros H. unfold key. rewrite Z2Pos.id; lia. Qed.

Lemma mod16_mod8 b : b mod 16 = 0 -> b mod 8 = 0.
Proof.
  intros H. rewrite (Z.div_mod b 16) by lia. rewrite H, Z.add_0_r.
  replace (16 * (b / 16)) with ((2 * (b / 16)) * 8) by lia. apply Z.mod_mul. lia.
Qed.
Lemma cell_ok_at b i : b mod 16 = 0 -> i mod 8 = 0 -> STACK_LIMIT <= b + i -> b + i + 8 <= STACK_TOP -> cell_ok (b + i).
Proof. intros Hb Hi L H. split; [|split; auto]. rewrite Zplus_mod, (mod16_mod8 b Hb), Hi. reflexivity. Qed.

Lemma ea_aligned s b i k : spv s = Some b -> b mod 16 = 0 -> ea s SP i k = k (b + i).
Proof. intros Hs Hb. unfold ea, need. cbn [rget]. rewrite Hs, Hb. reflexivity. Qed.

Lemma nodup_app_split {X} (a b : list X) :
  NoDup (a ++ b) -> NoDup a /\ NoDup b /\ (forall x, In x a -> ~ In x b).
Proof.
  induction a as [|x a IH]; cbn [app]; intros H; [split; [constructor|split; [exact H|intros ? []]]|].
  inversion H as [|? ? Hn H']; subst. destruct (IH H') as (A & B & C).
  split; [constructor; [intro Hx; apply Hn; apply in_or_app; auto|exact A]|]. split; [exact B|].
  intros y [->|Hy]; [intro Hb; apply Hn; apply in_or_app; auto|auto].
Qed.

Section Print.
Variable im : image.

Lemma step_STR_sp s b r i :
  spv s = Some b -> b mod 16 = 0 -> cell_ok (b + i) ->
  step im (STR (X r) SP i) s = Next (stk_set s (b + i) (xget s r)).
Proof.
  intros Hs Hb C. cbn [step]. rewrite (ea_aligned s b) by assumption.
  rewrite mstore_cell by exact C. reflexivity.
Qed.
Lemma step_LDR_sp s b r i :
  spv s = Some b -> b mod 16 = 0 -> cell_ok (b + i) ->
  step im (LDR (X r) SP i) s = Next (xset s r (PM.find (key (b + i)) (stack s))).
Proof.
  intros Hs Hb C. cbn [step]. rewrite (ea_aligned s b) by assumption.
  rewrite mload_cell by exact C. reflexivity.
Qed.

Lemma stack_addr_wrap a : STACK_LIMIT <= a <= STACK_TOP -> wrap a = a.
Proof. intros H. apply wrap_id. unfold STACK_LIMIT, STACK_TOP, min_int, max_int, two63 in *. lia. Qed.
Lemma step_SUBI_sp s b i :
  spv s = Some b -> STACK_LIMIT <= b - i <= STACK_TOP -> step im (SUBI SP SP i) s = Next (set_sp s (Some (b - i))).
Proof. intros Hs H. cbn [step]. unfold arith_imm, need. cbn [rget]. rewrite Hs, stack_addr_wrap by exact H. reflexivity. Qed.
Lemma step_ADDI_sp s b i :
  spv s = Some b -> STACK_LIMIT <= b + i <= STACK_TOP -> step im (ADDI SP SP i) s = Next (set_sp s (Some (b + i))).
Proof. intros Hs H. cbn [step]. unfold arith_imm, need. cbn [rget]. rewrite Hs, stack_addr_wrap by exact H. reflexivity. Qed.

(* A list of register writes (moves, loads) whose values do not depend on the registers written, as a fold. *)
Definition wr_state {A} (dst : A -> N) (val : astate -> A -> option Z) (l : list A) (s : astate) : astate :=
  fold_left (fun s p => xset s (dst p) (val s p)) l s.
Lemma wr_state_fields {A} (dst : A -> N) val l : forall s,
  spv (wr_state dst val l s) = spv s /\ stack (wr_state dst val l s) = stack s /\
  heap (wr_state dst val l s) = heap s /\ out (wr_state dst val l s) = out s.
Proof. induction l as [|p l IH]; intros s; cbn; [auto|]. destruct (IH (xset s (dst p) (val s p))) as (F1 & F2 & F3 & F4). auto. Qed.
Lemma wr_state_other {A} (dst : A -> N) val l : forall s m, ~ In m (map dst l) -> xget (wr_state dst val l s) m = xget s m.
Proof.
  induction l as [|p l IH]; intros s m H; [reflexivity|].
  cbn [map In] in H. cbn [wr_state fold_left]. fold (wr_state dst val l (xset s (dst p) (val s p))).
  rewrite IH by tauto. apply xget_xset_other. tauto.
Qed.
Lemma wr_state_in {A} (dst : A -> N) val l : forall s p,
  In p l -> NoDup (map dst l) -> (forall s q r v, In q l -> In r l -> val (xset s (dst r) v) q = val s q) ->
  xget (wr_state dst val l s) (dst p) = val s p.
Proof.
  induction l as [|q l IH]; intros s p Hin ND IND; [destruct Hin|].
  cbn [wr_state fold_left]. fold (wr_state dst val l (xset s (dst q) (val s q))).
  inversion ND as [|? ? Hn ND']; subst. destruct Hin as [->|Hin].
  - rewrite wr_state_other by exact Hn. apply xget_xset_same.
  - rewrite (IH _ p Hin ND') by (intros; apply IND; right; assumption).
    apply IND; [right; exact Hin|left; reflexivity].
Qed.

Definition mv_val {A} (src : A -> N) (s : astate) (p : A) : option Z := xget s (src p).
Lemma run_movs {A} (dst src : A -> N) l : forall s,
  run_straight im (map (fun p => MOVR (X (dst p)) (X (src p))) l) s = MOk (wr_state dst (mv_val src) l s).
Proof. induction l as [|p l IH]; intros s; cbn; [reflexivity|]. apply IH. Qed.
Lemma movs_in {A} (dst src : A -> N) l s p :
  In p l -> NoDup (map dst l) -> (forall q r, In q l -> In r l -> dst r <> src q) ->
  xget (wr_state dst (mv_val src) l s) (dst p) = xget s (src p).
Proof.
  intros Hin ND DJ. apply (wr_state_in dst (mv_val src)); [exact Hin|exact ND|].
  intros s0 q r v Hq Hr. apply xget_xset_other. apply DJ; assumption.
Qed.

Definition st_state (b : Z) (l : list (N * Z)) (s : astate) : astate :=
  fold_left (fun s p => stk_set s (b + snd p) (xget s (fst p))) l s.
Lemma st_state_fields b l : forall s,
  regs (st_state b l s) = regs s /\ spv (st_state b l s) = spv s /\ heap (st_state b l s) = heap s /\ out (st_state b l s) = out s.
Proof. induction l as [|p l IH]; intros s; cbn; [auto|]. destruct (IH (stk_set s (b + snd p) (xget s (fst p)))) as (A & B & C & D). auto. Qed.
Lemma run_strs b l : forall s,
  spv s = Some b -> b mod 16 = 0 -> Forall (fun p => cell_ok (b + snd p)) l ->
  run_straight im (map (fun p : N * Z => STR (X (fst p)) SP (snd p)) l) s = MOk (st_state b l s).
Proof.
  induction l as [|p l IH]; intros s Hs Hb F; [reflexivity|].
  inversion F as [|? ? C F']; subst. cbn [map run_straight]. rewrite (step_STR_sp s b) by auto.
  apply IH; auto.
Qed.
Lemma st_state_other b l : forall s k, ~ In k (map (fun p => key (b + snd p)) l) -> PM.find k (stack (st_state b l s)) = PM.find k (stack s).
Proof.
  induction l as [|p l IH]; intros s k H; [reflexivity|].
  cbn [map In] in H. cbn [st_state fold_left]. fold (st_state b l (stk_set s (b + snd p) (xget s (fst p)))).
  rewrite IH by tauto. apply find_stk_set_other. intro E; apply H; left; auto.
Qed.
Lemma st_state_in b l : forall s r off,
  In (r, off) l -> NoDup (map snd l) -> Forall (fun p => cell_ok (b + snd p)) l ->
  PM.find (key (b + off)) (stack (st_state b l s)) = xget s r.
Proof.
  induction l as [|p l IH]; intros s r off Hin ND F; [destruct Hin|].
  inversion ND as [|? ? Hn ND']; subst. inversion F as [|? ? C F']; subst.
  cbn [st_state fold_left]. fold (st_state b l (stk_set s (b + snd p) (xget s (fst p)))).
  destruct Hin as [->|Hin].
  - cbn [fst snd] in *. rewrite st_state_other; [apply find_stk_set_same|].
    intros Hk. apply in_map_iff in Hk as (q & E & Hq). apply Hn. apply in_map_iff. exists q. split; [|exact Hq].
    rewrite Forall_forall in F'. apply key_inj in E; [lia|apply cell_nonneg; auto|apply cell_nonneg; auto].
  - rewrite (IH _ r off Hin ND' F'). reflexivity.
Qed.

Definition ld_val (b : Z) (s : astate) (p : N * Z) : option Z := PM.find (key (b + snd p)) (stack s).
Lemma run_ldrs b l : forall s,
  spv s = Some b -> b mod 16 = 0 -> Forall (fun p => cell_ok (b + snd p)) l ->
  run_straight im (map (fun p : N * Z => LDR (X (fst p)) SP (snd p)) l) s = MOk (wr_state fst (ld_val b) l s).
Proof.
  induction l as [|p l IH]; intros s Hs Hb F; [reflexivity|].
  inversion F as [|? ? C F']; subst. cbn [map run_straight]. rewrite (step_LDR_sp s b) by auto.
  apply IH; auto.
Qed.

Lemma fold_remove_find (l : list N) : forall (m : PM.t Z) r,
  PM.find (N.succ_pos r) (fold_left (fun m r => PM.remove (N.succ_pos r) m) l m) =
  if existsb (N.eqb r) l then None else PM.find (N.succ_pos r) m.
Proof.
  induction l as [|x l IH]; intros m r; cbn [fold_left existsb]; [reflexivity|].
  rewrite IH. destruct (N.eqb_spec r x) as [->|NE]; cbn [orb].
  - destruct (existsb _ l); [reflexivity|apply PM.grs].
  - destruct (existsb _ l); [reflexivity|]. apply PM.gro. intro E. apply succ_pos_inj in E. congruence.
Qed.
Lemma xget_havoc s sp r :
  xget (havoc_call s sp) r = if existsb (N.eqb r) (LR :: caller_saved) then None else xget s r.
Proof. unfold xget, havoc_call. cbn [regs]. apply fold_remove_find. Qed.

Lemma xget_havoc_kept s sp r : (18 <= r <= 28)%N -> xget (havoc_call s sp) r = xget s r.
Proof.
  intros H. rewrite xget_havoc.
  assert (E : existsb (N.eqb r) (LR :: caller_saved) = false); [|rewrite E; reflexivity].
  apply not_true_is_false. intros E. apply existsb_exists in E as (c & Hc & E). apply N.eqb_eq in E. subst c.
  revert Hc. unfold LR, caller_saved. cbn [In]. lia.
Qed.

Lemma fold_filter_notin (P : positive -> bool) (l : list (positive * Z)) : forall acc k,
  (forall v, ~ In (k, v) l) ->
  PM.find k (fold_left (fun a p => if P (fst p) then a else PM.add (fst p) (snd p) a) l acc) = PM.find k acc.
Proof.
  induction l as [|[k0 v0] l IH]; intros acc k H; cbn [fold_left]; [reflexivity|].
  rewrite IH by (intros v Hv; apply (H v); right; exact Hv). cbn [fst snd].
  destruct (P k0); [reflexivity|]. apply PM.gso. intros ->. apply (H v0). left; reflexivity.
Qed.
Lemma fold_filter_in (P : positive -> bool) (l : list (positive * Z)) : forall acc k v,
  NoDupA (@PM.eq_key Z) l -> In (k, v) l ->
  PM.find k (fold_left (fun a p => if P (fst p) then a else PM.add (fst p) (snd p) a) l acc) =
  if P k then PM.find k acc else Some v.
Proof.
  induction l as [|[k0 v0] l IH]; intros acc k v ND Hin; [destruct Hin|].
  inversion ND as [|? ? Hn ND']; subst. cbn [fold_left fst snd]. destruct Hin as [E|Hin].
  - inversion E; subst. rewrite (fold_filter_notin P).
    + destruct (P k); [reflexivity|apply PM.gss].
    + intros v' Hv'. apply Hn. apply InA_alt. exists (k, v'). split; [reflexivity|exact Hv'].
  - rewrite (IH _ k v ND' Hin). destruct (P k) eqn:Pk; [|reflexivity].
    destruct (P k0); [reflexivity|]. apply PM.gso. intros E; subst k0. apply Hn. apply InA_alt. exists (k, v). split; [reflexivity|exact Hin].
Qed.
Lemma filter_fold_find (P : positive -> bool) (m : PM.t Z) k :
  PM.find k (PM.fold (fun q v acc => if P q then acc else PM.add q v acc) m (PM.empty Z)) = if P k then None else PM.find k m.
Proof.
  rewrite PM.fold_1. destruct (PM.find k m) as [v|] eqn:Fk.
  - rewrite (fold_filter_in P _ _ k v (PM.elements_3w _) (PM.elements_correct _ _ Fk)).
    rewrite PM.gempty. reflexivity.
  - rewrite (fold_filter_notin P); [rewrite PM.gempty; destruct (P k); reflexivity|].
    intros v Hv. apply PM.elements_complete in Hv. congruence.
Qed.
Lemma stack_havoc s sp k :
  PM.find k (stack (havoc_call s sp)) = if Z.pos k - 1 <? sp then None else PM.find k (stack s).
Proof. apply (filter_fold_find (fun q => Z.pos q - 1 <? sp)). Qed.

Lemma step_BL_print s sp (nw : bool) v :
  spv s = Some sp -> sp mod 16 = 0 -> xget s 0%N = Some v ->
  step im (BL (if nw then "println_i64" else "print_i64")%string) s = Next (havoc_call (add_out s (nw, v)) sp).
Proof.
  intros Hs Ha Hv. destruct nw; cbn [step String.eqb Ascii.eqb Bool.eqb orb]; unfold need; rewrite Hs, Ha; cbn [Z.eqb negb]; rewrite Hv; reflexivity.
Qed.

Section Around.
Variables (fb : N) (regs : list N).
Hypothesis FB : (18 <= fb)%N.
Hypothesis CLOB : Forall (fun r => (r <= 17)%N \/ r = 29%N) regs.
Hypothesis ND : NoDup regs.
Local Notation used := (backup_used fb regs).
Local Notation pc := (push_count fb regs).

Lemma bp_range d r : In (d, r) (backup_pairs fb regs) -> (18 <= d <= 28)%N /\ In r (firstn used regs).
Proof.
  intros H. pose proof (backup_pairs_range fb regs d r H) as R.
  assert (B : used = 0%nat \/ (fb + N.of_nat used <= 29)%N) by (unfold backup_used; change REGISTER_NUM with 30%N; lia).
  split; [lia|].
  rewrite <- (backup_pairs_snd fb regs). apply in_map_iff. exists (d, r). auto.
Qed.
Lemma regs_clob r : In r regs -> (r <= 17)%N \/ r = 29%N.
Proof. rewrite Forall_forall in CLOB. auto. Qed.
Lemma in_regs r : In r (firstn used regs) \/ In r (skipn used regs) -> In r regs.
Proof. intros H. rewrite <- (firstn_skipn used regs). apply in_or_app; exact H. Qed.
Lemma not_backup_dst m : (m < fb)%N \/ In m regs -> ~ In m (map fst (backup_pairs fb regs)).
Proof.
  intros Hm H. apply in_map_iff in H as ([d x] & E & Hin). cbn in E; subst d.
  pose proof (backup_pairs_range fb regs m x Hin). apply bp_range in Hin as [Hd _].
  destruct Hm as [Hm|Hm]; [|apply regs_clob in Hm]; lia.
Qed.

Lemma bp_disjoint q r : In q (backup_pairs fb regs) -> In r (backup_pairs fb regs) -> fst r <> snd q.
Proof.
  destruct q as [d x], r as [d' x']. cbn [fst snd]. intros Hq Hr. apply bp_range in Hq as [_ Hx]. apply bp_range in Hr as [Hd _].
  pose proof (regs_clob x (in_regs x (or_introl Hx))). lia.
Qed.

Definition cells_ok (b : Z) : Prop := Forall (fun p : N * Z => cell_ok (b + snd p)) (push_cells fb regs).
(* the backup registers and the cells pushed at sp1 hold the values V of the saved registers *)
Definition saved_in (s : astate) (sp1 : Z) (V : N -> option Z) : Prop :=
  (forall d r, In (d, r) (backup_pairs fb regs) -> xget s d = V r) /\
  (forall r off, In (r, off) (push_cells fb regs) -> PM.find (key (sp1 + off)) (stack s) = V r) /\
  cells_ok sp1.

Lemma save_ok s sp :
  spv s = Some sp -> sp mod 16 = 0 -> STACK_LIMIT + address (Z.of_nat pc) <= sp -> sp <= STACK_TOP ->
  exists s2 sp1,
    run_straight im (save_caller_save_registers fb regs) s = MOk s2 /\
    spv s2 = Some sp1 /\ sp1 mod 16 = 0 /\ sp1 <= sp /\ STACK_LIMIT <= sp1 /\
    sp1 = sp + sp_delta (save_caller_save_registers fb regs) /\
    heap s2 = heap s /\ out s2 = out s /\
    (forall m, ~ In m (map fst (backup_pairs fb regs)) -> xget s2 m = xget s m) /\
    saved_in s2 sp1 (xget s) /\
    (forall k, sp <= Z.pos k - 1 -> PM.find k (stack s2) = PM.find k (stack s)).
Proof.
  intros Hs Ha Hlo Hhi.
  rewrite save_delta. rewrite save_shape, run_straight_app, movs_out_pairs, run_movs. fold used pc.
  set (s1 := wr_state fst (mv_val snd) (backup_pairs fb regs) s).
  destruct (wr_state_fields fst (mv_val snd) (backup_pairs fb regs) s) as (F1 & F2 & F3 & F4). fold s1 in F1, F2, F3, F4.
  assert (B1 : forall d r, In (d, r) (backup_pairs fb regs) -> xget s1 d = xget s r).
  { intros d r H. apply (movs_in fst snd _ s (d, r) H (backup_pairs_nodup fb regs)). apply bp_disjoint. }
  assert (O1 : forall m, ~ In m (map fst (backup_pairs fb regs)) -> xget s1 m = xget s m).
  { intros m H. apply wr_state_other. exact H. }
  destruct (Nat.eqb_spec (List.length regs - used) 0) as [Z0|NZ].
  - (* nothing pushed *)
    assert (PC0 : push_cells fb regs = []).
    { unfold push_cells. fold used. replace (skipn used regs) with (@nil N); [reflexivity|].
      symmetry. apply length_zero_iff_nil. rewrite skipn_length. exact Z0. }
    exists s1, sp. cbn [run_straight]. rewrite Z.add_0_r.
    split; [reflexivity|]. split; [congruence|]. split; [exact Ha|]. split; [lia|]. split; [unfold address in Hlo; change A64C.address1 with 8 in Hlo; lia|].
    split; [reflexivity|]. split; [exact F3|]. split; [exact F4|]. split; [exact O1|].
    split; [|intros; now rewrite F2]. split; [exact B1|]. unfold cells_ok. rewrite PC0. split; [intros r off []|constructor].
  - (* SUB SP, SP, #8*pc; then the stores *)
    set (sp1 := sp - address (Z.of_nat pc)).
    assert (A16 : address (Z.of_nat pc) mod 16 = 0) by apply push_area_mod16.
    assert (P0 : 0 <= address (Z.of_nat pc)) by (unfold address; change A64C.address1 with 8; lia).
    assert (Ha1 : sp1 mod 16 = 0).
    { subst sp1. rewrite Zminus_mod, Ha, A16. reflexivity. }
    cbn [app run_straight]. rewrite (step_SUBI_sp s1 sp) by (try congruence; lia). fold sp1.
    set (s1' := set_sp s1 (Some sp1)).
    assert (CO : Forall (fun p : N * Z => cell_ok (sp1 + snd p) /\ sp1 + snd p + 8 <= sp) (push_cells fb regs)).
    { pose proof (push_cells_range fb regs) as R. fold pc in R. rewrite Forall_forall in *. intros p Hp.
      specialize (R (snd p) (in_map snd _ _ Hp)). destruct R as (R0 & R1 & R8).
      subst sp1. split; [apply cell_ok_at; auto; lia|lia]. }
    assert (CO1 : cells_ok sp1) by (unfold cells_ok; rewrite Forall_forall in *; intros p Hp; apply CO; auto).
    rewrite strs_cells. fold pc. rewrite (run_strs sp1) by (auto; reflexivity).
    set (s2 := st_state sp1 (push_cells fb regs) s1').
    destruct (st_state_fields sp1 (push_cells fb regs) s1') as (G1 & G2 & G3 & G4). fold s2 in G1, G2, G3, G4.
    assert (XG : forall m, xget s2 m = xget s1 m) by (intros m; unfold xget; rewrite G1; reflexivity).
    exists s2, sp1.
    split; [reflexivity|]. split; [rewrite G2; reflexivity|]. split; [exact Ha1|]. split; [subst sp1; lia|].
    split; [subst sp1; lia|]. split; [subst sp1; lia|]. split; [rewrite G3; exact F3|]. split; [rewrite G4; exact F4|].
    split; [intros m H; rewrite XG; auto|]. split; [split; [intros d r H; rewrite XG; auto|split]|].
    + intros r off H. unfold s2. rewrite (st_state_in sp1 _ s1' r off H (push_cells_nodup fb regs) CO1).
      change (xget s1' r) with (xget s1 r). apply O1. apply not_backup_dst. right. apply in_regs. right.
      rewrite <- (push_cells_fst fb regs). apply in_map_iff. exists (r, off). auto.
    + exact CO1.
    + intros k Hk. unfold s2. rewrite st_state_other; [cbn [stack s1' set_sp]; now rewrite F2|].
      intros Hin. apply in_map_iff in Hin as (p & E & Hp). rewrite Forall_forall in CO. destruct (CO p Hp) as (C & Hb).
      subst k. rewrite pos_key in Hk by (apply cell_nonneg; exact C). lia.
Qed.

(* the restore code, from any state in which the backups and the pushed cells hold the values V *)
Lemma restore_ok s4 sp sp1 (V : N -> option Z) :
  spv s4 = Some sp1 -> sp1 mod 16 = 0 -> sp1 = sp + sp_delta (save_caller_save_registers fb regs) ->
  STACK_LIMIT <= sp1 -> sp <= STACK_TOP ->
  saved_in s4 sp1 V ->
  exists s',
    run_straight im (restore_caller_save_registers fb regs) s4 = MOk s' /\
    spv s' = Some sp /\ heap s' = heap s4 /\ out s' = out s4 /\ stack s' = stack s4 /\
    (forall r, In r regs -> xget s' r = V r) /\
    (forall m, ~ In m regs -> xget s' m = xget s4 m).
Proof.
  intros Hs Ha Hd Hlo Hhi (BV & CV & CO). rewrite save_delta in Hd. fold used pc in Hd.
  rewrite restore_shape, run_straight_app, movs_back_pairs. fold used pc.
  destruct (nodup_app_split (firstn used regs) (skipn used regs)) as (ND1 & ND2 & ND12); [rewrite firstn_skipn; exact ND|].
  rewrite (run_movs snd fst). set (s5 := wr_state snd (mv_val fst) (backup_pairs fb regs) s4).
  destruct (wr_state_fields snd (mv_val fst) (backup_pairs fb regs) s4) as (F1 & F2 & F3 & F4). fold s5 in F1, F2, F3, F4.
  assert (R5 : forall r, In r (firstn used regs) -> xget s5 r = V r).
  { intros r Hr. rewrite <- (backup_pairs_snd fb regs) in Hr. apply in_map_iff in Hr as ([d r'] & E & Hin). cbn in E; subst r'.
    transitivity (xget s4 d); [|apply BV; exact Hin]. apply (movs_in snd fst _ s4 (d, r) Hin).
    - rewrite backup_pairs_snd. exact ND1.
    - intros q r' Hq Hr' E. apply (bp_disjoint r' q Hr' Hq). symmetry; exact E. }
  assert (O5 : forall m, ~ In m (firstn used regs) -> xget s5 m = xget s4 m).
  { intros m H. apply wr_state_other. now rewrite backup_pairs_snd. }
  revert Hd. destruct (Nat.eqb_spec (List.length regs - used) 0) as [Z0|NZ]; intros Hd.
  - assert (skipn used regs = []) as SK by (apply length_zero_iff_nil; rewrite skipn_length; exact Z0).
    assert (regs = firstn used regs) as RF by (rewrite <- (firstn_skipn used regs) at 1; rewrite SK; apply app_nil_r).
    exists s5. cbn [run_straight]. split; [reflexivity|]. split; [rewrite F1, Hs; f_equal; clear - Hd; lia|].
    split; [exact F3|]. split; [exact F4|]. split; [exact F2|]. split.
    + intros r Hr. apply R5. now rewrite <- RF.
    + intros m Hm. apply O5. now rewrite <- RF.
  - rewrite run_straight_app, ldrs_cells. fold pc.
    assert (CO' : Forall (fun p : N * Z => cell_ok (sp1 + snd p)) (rev (push_cells fb regs))).
    { apply Forall_forall. intros p Hp. apply in_rev in Hp. unfold cells_ok in CO. rewrite Forall_forall in CO. auto. }
    rewrite (run_ldrs sp1) by (auto; congruence).
    set (s6 := wr_state fst (ld_val sp1) (rev (push_cells fb regs)) s5).
    destruct (wr_state_fields fst (ld_val sp1) (rev (push_cells fb regs)) s5) as (G1 & G2 & G3 & G4). fold s6 in G1, G2, G3, G4.
    assert (FSTr : map fst (rev (push_cells fb regs)) = rev (skipn used regs)).
    { rewrite map_rev. f_equal. apply push_cells_fst. }
    assert (P0 : 0 <= address (Z.of_nat pc)) by (unfold address; change A64C.address1 with 8; lia).
    cbn [run_straight]. rewrite (step_ADDI_sp s6 sp1) by (try congruence; lia).
    replace (sp1 + address (Z.of_nat pc)) with sp by lia. eexists. split; [reflexivity|]. split; [reflexivity|].
    split; [cbn; rewrite G3; exact F3|]. split; [cbn; rewrite G4; exact F4|]. split; [cbn; rewrite G2; exact F2|].
    split.
    + intros r Hr. change (xget (set_sp s6 (Some sp)) r) with (xget s6 r).
      rewrite <- (firstn_skipn used regs) in Hr. apply in_app_or in Hr as [Hr|Hr].
      * unfold s6. rewrite wr_state_other; [apply R5; exact Hr|].
        rewrite FSTr. intros H. apply in_rev in H. eapply ND12; eauto.
      * rewrite <- (push_cells_fst fb regs) in Hr. apply in_map_iff in Hr as ([r' off] & E & Hin). cbn in E; subst r'.
        transitivity (PM.find (key (sp1 + off)) (stack s5)); [|rewrite F2; apply CV; exact Hin].
        apply (wr_state_in fst (ld_val sp1) _ s5 (r, off)); [| |reflexivity].
        -- apply in_rev. rewrite rev_involutive. exact Hin.
        -- rewrite FSTr. apply NoDup_rev. exact ND2.
    + intros m Hm. change (xget (set_sp s6 (Some sp)) m) with (xget s6 m).
      unfold s6. rewrite wr_state_other.
      * apply O5. intros H. apply Hm, in_regs. left; exact H.
      * rewrite FSTr. intros H. apply in_rev in H. apply Hm, in_regs. right; exact H.
Qed.

Lemma around_call_ok s sp a (nw : bool) v :
  spv s = Some sp -> sp mod 16 = 0 -> STACK_LIMIT + address (Z.of_nat pc) <= sp -> sp <= STACK_TOP ->
  (a < fb)%N -> xget s a = Some v ->
  exists s',
    run_straight im (save_caller_save_registers fb regs ++ [MOVR (X 0) (X a)]
                     ++ [BL (if nw then "println_i64" else "print_i64")%string]
                     ++ restore_caller_save_registers fb regs) s = MOk s' /\
    spv s' = Some sp /\ heap s' = heap s /\ out s' = (nw, v) :: out s /\
    (forall r, In r regs -> xget s' r = xget s r) /\
    (forall r, (18 <= r <= 28)%N -> (r < fb)%N -> xget s' r = xget s r) /\
    (forall k, sp <= Z.pos k - 1 -> PM.find k (stack s') = PM.find k (stack s)).
Proof.
  intros Hs Ha Hlo Hhi Harg Hv.
  destruct (save_ok s sp Hs Ha Hlo Hhi) as (s2 & sp1 & E2 & S2 & A2 & LE2 & LO2 & D2 & H2 & O2 & NB2 & (B2 & C2 & CO2) & K2).
  rewrite run_straight_app, E2. cbn [app run_straight]. rewrite step_MOVR. cbn [rget rset].
  rewrite (NB2 a (not_backup_dst a (or_introl Harg))), Hv.
  set (s3 := xset s2 0 (Some v)).
  rewrite (step_BL_print s3 sp1 nw v) by (auto; apply xget_xset_same).
  set (s4 := havoc_call (add_out s3 (nw, v)) sp1).
  assert (S4 : spv s4 = Some sp1) by exact S2.
  assert (X4 : forall d, (18 <= d <= 28)%N -> xget s4 d = xget s2 d).
  { intros d Hd. unfold s4. rewrite xget_havoc_kept by exact Hd.
    change (xget (add_out s3 (nw, v)) d) with (xget s3 d). unfold s3. apply xget_xset_other. lia. }
  destruct (restore_ok s4 sp sp1 (xget s) S4 A2 D2 LO2 Hhi) as (s' & E' & S' & H' & O' & K' & R' & M').
  { split; [|split; [|exact CO2]].
    - intros d r Hin. rewrite X4 by (apply bp_range in Hin as [Hd _]; exact Hd). apply B2; exact Hin.
    - intros r off Hin. unfold s4. rewrite stack_havoc.
      pose proof (proj1 (Forall_forall _ _) CO2 _ Hin) as CO. cbn [snd] in CO.
      rewrite pos_key by (apply cell_nonneg; exact CO).
      destruct (Z.ltb_spec (sp1 + off) sp1) as [L|_]; [pose proof (push_cells_range fb regs) as R;
        rewrite Forall_forall in R; specialize (R off (in_map snd _ _ Hin)); lia|].
      change (stack (add_out s3 (nw, v))) with (stack s2). apply C2; exact Hin. }
  exists s'. split; [exact E'|]. split; [exact S'|].
  split; [rewrite H'; exact H2|]. split; [rewrite O'; cbn; rewrite O2; reflexivity|].
  split; [exact R'|]. split.
  - intros r Hr Hfb. rewrite M' by (intros H; apply regs_clob in H; lia).
    rewrite X4 by exact Hr. apply NB2, not_backup_dst. left; exact Hfb.
  - intros k Hk. rewrite K'. unfold s4. rewrite stack_havoc.
    destruct (Z.ltb_spec (Z.pos k - 1) sp1); [lia|]. change (stack (add_out s3 (nw, v))) with (stack s2). apply K2; exact Hk.
Qed.
End Around.

(* where the printed value may live: a spill slot, or a register below the first backup register
   (every variable register is) *)
Definition print_src_ok (context : ctx) (src : atemp) : Prop :=
  match src with
  | AR (X r) => (r < N.max (2 * N.of_nat (List.length context) + 4) 18)%N
  | AR _ => False
  | AS p => slot_ok p
  end.

Lemma tfp_cases p t :
  temporary_from_position p = Ok t ->
  (exists r, t = AR (X r) /\ r = (p + 4)%N /\ (r < 30)%N) \/ (exists q, t = AS q /\ slot_ok q).
Proof.
  unfold temporary_from_position. change RESERVED with 4%N. change REGISTER_NUM with 30%N.
  destruct (N.ltb_spec (p + 4) 30) as [H|H].
  - intros E; inversion E; subst. left. eauto.
  - destruct (N.ltb_spec (p + 4 - 30 + RESERVED_SPILLS) SPILL_NUM) as [H2|H2]; [|discriminate].
    intros E; inversion E; subst. right. eexists; split; [reflexivity|exact H2].
Qed.

Lemma temp_not_saved context : ~ In 2%N (snd (caller_save_registers_info context)).
Proof.
  rewrite info_shape. cbn [snd app]. intros [H|[H|H]]; [discriminate H|discriminate H|].
  apply in_app_or in H as [H|H]; [|apply ctx_regs_range in H; lia].
  destruct (N.leb _ _); [destruct H as [H|[]]; discriminate H|destruct H].
Qed.

(* the optional load of a spilled argument into X2: the state after it, and the register holding the argument *)
Lemma print_arg_ok (fb : N) src s sp v :
  frame_ok s sp -> (2 < fb)%N ->
  match src with AR (X r) => (r < fb)%N | AR _ => False | AS p => slot_ok p end -> lget s sp src = Some v ->
  exists s0 a,
    run_straight im (match src with AS _ => move_to_register TEMP src | AR _ => [] end) s = MOk s0 /\
    match src with AR r => MOVR (X 0) r | AS _ => MOVR (X 0) TEMP end = MOVR (X 0) (X a) /\
    (a < fb)%N /\ xget s0 a = Some v /\
    spv s0 = spv s /\ stack s0 = stack s /\ heap s0 = heap s /\ out s0 = out s /\
    (forall m, m <> 2%N -> xget s0 m = xget s m).
Proof.
  intros F FB SRC VAL. destruct src as [[r| |]|p]; cbn [lget rget] in VAL; try contradiction.
  - exists s, r. cbn [run_straight]. repeat split; auto.
  - exists (rset s TEMP (sget s sp p)), 2%N. cbn [move_to_register run_straight].
    rewrite (step_LDR_slot im s sp F) by exact SRC. rewrite TEMP_is. cbn [rset].
    split; [reflexivity|]. split; [reflexivity|]. split; [exact FB|].
    split; [rewrite xget_xset_same; exact VAL|].
    repeat split; auto. intros m Hm. apply xget_xset_other. congruence.
Qed.

Theorem a64_print_ok (nw : bool) src context s sp v :
  frame_ok s sp -> STACK_LIMIT + 144 <= sp ->
  print_src_ok context src -> lget s sp src = Some v ->
  exists s',
    run_straight im (a_print nw src context) s = MOk s' /\
    out s' = (nw, v) :: out s /\ heap s' = heap s /\ frame_ok s' sp /\
    rget s' HEAP = rget s HEAP /\ rget s' FREE = rget s FREE /\
    (forall i b n t, nth_error context i = Some b -> (n = Snd \/ bchi b <> Ext) ->
       temporary_from_position (2 * N.of_nat i + tnum_n n) = Ok t -> lget s' sp t = lget s sp t) /\
    (forall k, sp <= Z.pos k - 1 -> PM.find k (stack s') = PM.find k (stack s)).
Proof.
  intros F ROOM SRC VAL. destruct F as (Hs & SPOK). pose proof SPOK as (Ha & Hlo & Hhi).
  pose proof (saved_covers_live context) as COVER. pose proof (saved_heap_free context) as [IN0 IN1].
  pose proof (saved_nodup context) as NDr. pose proof (saved_length context) as LEN.
  assert (CLOB : Forall (fun r => (r <= 17)%N \/ r = 29%N) (snd (caller_save_registers_info context))).
  { apply Forall_forall. intros r. apply saved_are_clobberable. }
  pose proof (temp_not_saved context) as NT.
  assert (FBV : fst (caller_save_registers_info context) = N.max (2 * N.of_nat (List.length context) + 4) 18)
    by (rewrite info_shape; reflexivity).
  unfold a_print. destruct (caller_save_registers_info context) as [fb regs]. cbn [fst snd] in *.
  assert (FB : (18 <= fb)%N) by lia.
  assert (PC : STACK_LIMIT + address (Z.of_nat (push_count fb regs)) <= sp).
  { pose proof (pc_bounds fb regs). unfold address. change A64C.address1 with 8.
    assert (Z.of_nat (push_count fb regs) <= 18) by lia. lia. }
  assert (TOP : sp <= STACK_TOP) by (unfold SPILL_SPACE in Hhi; change A64C.SPILL_SPACE with 2048 in Hhi; lia).
  unfold print_src_ok in SRC. rewrite <- FBV in SRC.
  destruct (print_arg_ok fb src s sp v (conj Hs SPOK)) as (s0 & a & E0 & MV & Afb & Va & S0 & K0 & H0 & O0 & X0);
    [lia|exact SRC|exact VAL|].
  rewrite run_straight_app, E0, MV.
  destruct (around_call_ok fb regs FB CLOB NDr s0 sp a nw v (eq_trans S0 Hs) Ha PC TOP Afb Va)
    as (s' & E' & S' & H' & O' & R' & C' & K').
  exists s'. split; [exact E'|]. split; [rewrite O', O0; reflexivity|]. split; [rewrite H', H0; reflexivity|].
  split; [split; [exact S'|exact SPOK]|].
  assert (RG : forall r, In r regs -> xget s' r = xget s r).
  { intros r Hr. rewrite R' by exact Hr. apply X0. intros ->. contradiction. }
  split; [apply (RG 0%N IN0)|]. split; [apply (RG 1%N IN1)|]. split.
  - intros i b n t Hi Hn Ht. destruct (tfp_cases _ _ Ht) as [(r & -> & Er & Hr)|(q & -> & Hq)]; cbn [lget rget].
    + assert (i < List.length context)%nat by (apply nth_error_Some; congruence).
      destruct (N.le_gt_cases r 17) as [L|G]; [apply RG; eapply COVER; eauto|].
      destruct (N.eq_dec r 29) as [->|N29]; [apply RG; eapply COVER; eauto|].
      rewrite C' by (destruct n; cbn [tnum_n] in Er; lia). apply X0. lia.
    + unfold sget. destruct (slot_addr_facts sp q SPOK Hq) as (_ & _ & _ & GE & NN).
      rewrite K', K0; [reflexivity|]. rewrite pos_key; lia.
  - intros k Hk. rewrite K' by exact Hk. now rewrite K0.
Qed.

(* print_src_ok holds of the second temporary of every variable of every context, whether that is a
   register (up to X29/X30, for the 13th variable) or a spill slot *)
Example a64_print_src_ok_variable context i b t :
  nth_error context i = Some b -> temporary_from_position (2 * N.of_nat i + tnum_n Snd) = Ok t -> print_src_ok context t.
Proof.
  intros Hi Ht. assert (i < List.length context)%nat by (apply nth_error_Some; congruence).
  destruct (tfp_cases _ _ Ht) as [(r & -> & Er & Hr)|(q & -> & Hq)]; cbn [print_src_ok tnum_n] in *; [lia|exact Hq].
Qed.
End Print.
