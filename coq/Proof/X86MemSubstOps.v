(* The memory part of a substitution at the x86-64 level: the code `code_weakening_contraction`
   emits for the transposed map tm (an erase_block or a share_block_n per non-ext binding, in the
   order of tm) refines, through abs_heap, the operation list the instrumented machine of
   Sem/AxHeap.v performs for the substitution (`rc_op` per binding, the same order).  Composition of
   x86_erase_block_ok / x86_share_block_ok of Proof/X86Mem.v over the list; the header bounds `hb`
   keep the 64-bit counts from wrapping along the way. *)
From Coq Require Import List ZArith NArith String Bool Lia FMapPositive.
From SCC Require Import Base.Sexp Lang.AxSyn Sem.AxSem Sem.AxHeap Model.Backend Model.X86 Sem.X86Sem Generated.Constants
  Proof.X86State Proof.X86Sel Proof.X86Mem Proof.X86MemFrame.
From SCC Require Model.Heap.
Import ListNotations.
Open Scope list_scope.
Open Scope Z_scope.

(* actions: (temporary holding the pointer, pointer, new number of copies) *)
Definition act := (xtemp * Z * nat)%type.
Definition act_code (a : act) (lc : N) : list xcode * N :=
  match snd a with
  | O => x_erase_block (fst (fst a)) lc
  | S O => ([], lc)
  | S (S m) => x_share_block_n (fst (fst a)) (N.of_nat (S m)) lc
  end.
Fixpoint acts_code (acts : list act) (lc : N) : list xcode * N :=
  match acts with
  | [] => ([], lc)
  | a :: r => let '(c1, lc1) := act_code a lc in let '(c2, lc2) := acts_code r lc1 in (c1 ++ c2, lc2)
  end.
Definition act_op (a : act) : list Heap.op :=
  match snd a with
  | O => [Heap.OErase (snd (fst a))]
  | S O => []
  | S (S m) => [Heap.OShare (snd (fst a)) (Z.of_nat (S m))]
  end.
Definition n_erase (acts : list act) : Z := Z.of_nat (List.length (filter (fun a : act => match snd a with O => true | _ => false end) acts)).
Definition n_share (acts : list act) : Z := fold_right (fun (a : act) z => Z.of_nat (snd a) + z) 0 acts.
Lemma n_share_nonneg acts : 0 <= n_share acts.
Proof. unfold n_share. induction acts as [|a r IH]; cbn [fold_right]; lia. Qed.
Lemma n_erase_nonneg acts : 0 <= n_erase acts.
Proof. unfold n_erase. lia. Qed.

(* headers of all blocks and the free pointer lie lo above the smallest and hi below the largest
   64-bit integer *)
Definition hb (lo hi : Z) (s : xstate) (f : Z) : Prop :=
  (forall x, is_blk x -> min_int + lo <= hword s x /\ hword s x + hi <= max_int) /\
  (min_int + lo <= f /\ f + hi <= max_int).

Lemma sbtf_lget s s' sp k : same_but_temp_free s s' -> lget s' sp (tpos k) = lget s sp (tpos k).
Proof.
  intros (R & St & _). destruct (tpos_not_reserved k) as (_ & NT & _ & NF & _).
  destruct (tpos k) as [r|q] eqn:E; cbn [lget].
  - apply R; congruence.
  - unfold sget. now rewrite St.
Qed.
Lemma sbt_sbtf s s' : same_but_temp s s' -> same_but_temp_free s s'.
Proof. intros (R & A & B). split; [|auto]. intros r H1 _. now apply R. Qed.
Lemma sbtf_trans a b c : same_but_temp_free a b -> same_but_temp_free b c -> same_but_temp_free a c.
Proof.
  intros (R1 & S1 & O1) (R2 & S2 & O2). split; [|split; congruence]. intros r H1 H2. rewrite R2, R1; auto.
Qed.
Lemma sbtf_refl a : same_but_temp_free a a.
Proof. repeat split; auto. Qed.

Lemma hrun_app ops1 ops2 a : hrun (ops1 ++ ops2) a = hrun ops2 (hrun ops1 a).
Proof. unfold hrun. apply fold_left_app. Qed.
Lemma blk_small p : is_blk p -> 0 < p /\ p < 2 ^ 40.
Proof. intros (k & Hk & -> & H). unfold HEAP_BASE, HEAP_SIZE in *. lia. Qed.

(* the operations of a list of actions respect the block-wise equality of abstract states *)
Lemma acts_st_eqB : forall acts a b,
  st_eqB a b -> Forall (fun x : act => snd (fst x) = 0 \/ is_blk (snd (fst x))) acts ->
  st_eqB (hrun (flat_map act_op acts) a) (hrun (flat_map act_op acts) b).
Proof.
  induction acts as [|[[t p] n] acts IH]; intros a b E HF; cbn [flat_map]; [exact E|].
  inversion HF as [|? ? Hp HF']; subst. cbn [fst snd] in Hp. rewrite !hrun_app. apply IH; auto.
  unfold act_op; cbn [fst snd]. destruct n as [|[|n]]; cbn [hrun fold_left Heap.step]; auto.
  - now apply erase_st_eqB.
  - now apply share_st_eqB.
Qed.

Section WC.
Variable im : image.

Theorem x86_acts_ok F sp : forall acts lc cs lc' pos s f,
  acts_code acts lc = (cs, lc') ->
  code_at im pos cs -> labels_at im pos cs -> frame_ok s sp -> rget s FREE = Some f ->
  Forall (fun a : act => exists k, fst (fst a) = tpos k /\ (k < MAXPOS)%N /\ lget s sp (tpos k) = Some (snd (fst a)) /\
                                   (snd (fst a) = 0 \/ is_blk (snd (fst a)))) acts ->
  hb (n_erase acts) (n_share acts) s f -> n_share acts <= 2 ^ 31 - 1 -> n_erase acts <= 2 ^ 31 - 1 ->
  exists s', steps im pos s (pnth pos (List.length cs)) s' /\
    st_eqB (abs_heap F s') (hrun (flat_map act_op acts) (abs_heap F s)) /\
    same_but_temp_free s s' /\ frame_ok s' sp /\
    rget s' FREE = Some (Heap.free (hrun (flat_map act_op acts) (abs_heap F s))).
Proof.
  induction acts as [|[[t p] n] acts IH]; intros lc cs lc' pos s f HC CA LA FR Hf HV HB HS HR.
  - cbn in HC. inversion HC; subst. exists s. cbn [flat_map hrun fold_left List.length pnth]. split; [apply steps_refl|]. split; [apply st_eqB_refl|].
    split; [apply sbtf_refl|]. split; [exact FR|]. rewrite Hf. cbn [abs_heap Heap.free]. unfold reg_or0. now rewrite Hf.
  - cbn [acts_code] in HC. destruct (act_code (t, p, n) lc) as [c1 lc1] eqn:E1.
    destruct (acts_code acts lc1) as [c2 lc2] eqn:E2. inversion HC; subst. clear HC.
    destruct (code_at_app2 _ _ _ _ CA) as [CA1 CA2]. destruct (labels_at_app2 _ _ _ _ LA) as [LA1 LA2].
    inversion HV as [|? ? (k & Et & Hk & Hl & Hp) HV']; subst. cbn [fst snd] in Et, Hl, Hp. subst t.
    pose proof (tpos_loc_ok _ Hk) as Tok.
    assert (HPs : Forall (fun x : act => snd (fst x) = 0 \/ is_blk (snd (fst x))) acts).
    { eapply Forall_impl; [|exact HV']. intros a (k' & _ & _ & _ & H). exact H. }
    pose proof (n_share_nonneg acts) as Hsh. pose proof (n_erase_nonneg acts) as Her.
    assert (Ff : Heap.free (abs_heap F s) = f) by (cbn [abs_heap Heap.free]; unfold reg_or0; now rewrite Hf).
    assert (HR' : n_erase acts <= 2 ^ 31 - 1).
    { unfold n_erase in *. cbn [filter snd] in HR. destruct n; cbn [List.length] in HR; lia. }
    assert (HS' : n_share acts <= 2 ^ 31 - 1) by (unfold n_share in *; cbn [fold_right snd] in HS; lia).
    (* the first action: a state s1 refining its operation, with the bounds for the rest *)
    assert (H1 : exists s1 f1, steps im pos s (pnth pos (List.length c1)) s1 /\
               st_eqB (abs_heap F s1) (hrun (act_op (tpos k, p, n)) (abs_heap F s)) /\
               same_but_temp_free s s1 /\ frame_ok s1 sp /\ rget s1 FREE = Some f1 /\
               f1 = Heap.free (hrun (act_op (tpos k, p, n)) (abs_heap F s)) /\
               hb (n_erase acts) (n_share acts) s1 f1).
    { unfold act_code, act_op in *; cbn [fst snd] in *. destruct n as [|[|n]].
      - (* erase *)
        assert (HBe : hb (1 + n_erase acts) (n_share acts) s f).
        { unfold n_erase in *. cbn [filter snd List.length] in HB. rewrite Nat2Z.inj_succ in HB.
          unfold n_share in *. cbn [fold_right snd] in HB. replace (Z.of_nat 0 + fold_right (fun (a : act) z => Z.of_nat (snd a) + z) 0 acts) with (fold_right (fun (a : act) z => Z.of_nat (snd a) + z) 0 acts) in HB by lia.
          replace (1 + Z.of_nat (List.length (filter (fun a : act => match snd a with O => true | _ => false end) acts))) with (Z.succ (Z.of_nat (List.length (filter (fun a : act => match snd a with O => true | _ => false end) acts)))) by lia. exact HB. }
        assert (Hw : p <> 0 -> hword s p <> 0 -> wrap (hword s p + -1) = hword s p - 1).
        { intros Hp0 _. destruct Hp as [|Hblk]; [contradiction|]. destruct HBe as [B1 _]. specialize (B1 _ Hblk).
          replace (hword s p + -1) with (hword s p - 1) by lia. apply wrap_id. lia. }
        pose proof (x86_erase_block_ok im pos (tpos k) lc s sp p f F) as HE. rewrite E1 in HE. cbn [fst] in HE.
        destruct (HE CA1 LA1 FR Tok Hl Hf Hp Hw) as (s1 & ST1 & EQ1 & SB1 & FR1 & Hf1).
        exists s1, (Heap.free (Heap.erase p (abs_heap F s))). cbn [hrun fold_left Heap.step].
        split; [exact ST1|]. split; [exact EQ1|]. split; [exact SB1|]. split; [exact FR1|]. split; [exact Hf1|]. split; [reflexivity|].
        destruct HBe as [B1 [B2 B3]]. destruct EQ1 as (_ & _ & _ & EM). split.
        + intros x Hx. change (hword s1 x) with (Heap.hdr (Heap.m (abs_heap F s1) x)). rewrite (EM x Hx).
          specialize (B1 x Hx). change (hword s x) with (Heap.hdr (Heap.m (abs_heap F s) x)) in B1.
          destruct (erase_hdr_cases (abs_heap F s) p x) as [->|[->| ->]]; rewrite ?Ff; lia.
        + destruct (erase_free_cases (abs_heap F s) p) as [->| ->]; [rewrite Ff; lia|].
          destruct Hp as [->|Hblk]; [unfold min_int, max_int, two63 in *; lia|].
          destruct (blk_small _ Hblk). unfold min_int, max_int, two63 in *. lia.
      - (* one copy: no code *)
        inversion E1 as [[Ec Elc]]. subst c1 lc1. exists s, f. cbn [List.length pnth hrun fold_left].
        split; [apply steps_refl|]. split; [apply st_eqB_refl|]. split; [apply sbtf_refl|]. split; [exact FR|]. split; [exact Hf|].
        split; [symmetry; exact Ff|].
        unfold n_erase, n_share in *. cbn [filter snd fold_right] in HB. destruct HB as [B1 B2]. split.
        * intros x Hx. specialize (B1 x Hx). lia.
        * lia.
      - (* share *)
        set (m := N.of_nat (S n)) in *.
        assert (Em : Z.of_N m = Z.of_nat (S n)) by (unfold m; lia).
        assert (HSn : Z.of_nat (S (S n)) + n_share acts <= 2 ^ 31 - 1) by (unfold n_share in *; cbn [fold_right snd] in HS; exact HS).
        assert (Hfit : fits32 (Z.of_N m) = true).
        { unfold fits32. apply andb_true_iff. split; apply Z.leb_le; lia. }
        assert (HBs : hb (n_erase acts) (Z.of_nat (S (S n)) + n_share acts) s f).
        { unfold n_erase, n_share in *. cbn [filter snd fold_right] in HB. exact HB. }
        assert (Hw : p <> 0 -> wrap (hword s p + Z.of_N m) = hword s p + Z.of_N m).
        { intros Hp0. destruct Hp as [|Hblk]; [contradiction|]. destruct HBs as [B1 _]. specialize (B1 _ Hblk). apply wrap_id. lia. }
        pose proof (x86_share_block_ok im pos (tpos k) m lc s sp p F) as HE. rewrite E1 in HE. cbn [fst] in HE.
        destruct (HE CA1 LA1 FR Tok Hl Hp Hfit Hw) as (s1 & ST1 & EQ1 & SB1 & FR1).
        exists s1, f. cbn [hrun fold_left Heap.step]. rewrite <- Em.
        split; [exact ST1|]. split; [exact EQ1|]. split; [apply sbt_sbtf; exact SB1|]. split; [exact FR1|].
        split; [destruct SB1 as (R & _); rewrite R by discriminate; exact Hf|].
        split; [unfold Heap.share; destruct (p =? 0); cbn [Heap.free]; symmetry; exact Ff|].
        destruct HBs as [B1 B2]. destruct EQ1 as (_ & _ & _ & EM). split; [|lia].
        intros x Hx. change (hword s1 x) with (Heap.hdr (Heap.m (abs_heap F s1) x)). rewrite (EM x Hx).
        specialize (B1 x Hx). change (hword s x) with (Heap.hdr (Heap.m (abs_heap F s) x)) in B1.
        unfold Heap.share. destruct (Z.eqb_spec p 0); [lia|]. cbn [Heap.m].
        destruct (Z.eq_dec x p) as [->|Hne]; [rewrite Heap.hdr_set_hdr_same|rewrite Heap.hdr_set_hdr_other by exact Hne]; lia. }
    destruct H1 as (s1 & f1 & ST1 & EQ1 & SB1 & FR1 & Hf1 & Ef1 & HB1).
    assert (HV1 : Forall (fun a : act => exists k, fst (fst a) = tpos k /\ (k < MAXPOS)%N /\ lget s1 sp (tpos k) = Some (snd (fst a)) /\
                                              (snd (fst a) = 0 \/ is_blk (snd (fst a)))) acts).
    { eapply Forall_impl; [|exact HV']. intros a (k' & A & B & C & D). exists k'. rewrite (sbtf_lget s s1 sp k' SB1). auto. }
    assert (HS1 : n_share acts <= 2 ^ 31 - 1) by (unfold n_share in *; cbn [fold_right snd] in HS; lia).
    assert (HR1 : n_erase acts <= 2 ^ 31 - 1).
    { unfold n_erase in *. cbn [filter snd] in HR. destruct n; cbn [List.length] in HR; lia. }
    destruct (IH lc1 c2 lc' _ s1 f1 E2 CA2 LA2 FR1 Hf1 HV1 HB1 HS1 HR1) as (s2 & ST2 & EQ2 & SB2 & FR2 & Hf2).
    pose proof (acts_st_eqB acts _ _ EQ1 HPs) as EQr.
    exists s2. cbn [flat_map]. rewrite hrun_app. split; [|split; [|split; [|split]]].
    + rewrite app_length, <- pnth_add. eapply steps_trans; eauto.
    + eapply st_eqB_trans; [exact EQ2|exact EQr].
    + eapply sbtf_trans; eauto.
    + exact FR2.
    + rewrite Hf2. f_equal. destruct EQr as (_ & E & _). exact E.
Qed.

(* code_weakening_contraction is the code of the actions of tm *)
Definition tm_acts (ptr : binding -> Z) (context : ctx) (tm : list (binding * list N)) : list act :=
  flat_map (fun bt : binding * list N =>
              match bchi (fst bt) with
              | Ext => []
              | _ => match position_of context (idn (bvar (fst bt))) 0 with
                     | Some q => [(tpos (2 * q + tnum_n Fst), ptr (fst bt), List.length (snd bt))]
                     | None => []
                     end
              end) tm.

Lemma tm_acts_cons ptr context b targets tm :
  tm_acts ptr context ((b, targets) :: tm) =
  (match bchi b with
   | Ext => []
   | _ => match position_of context (idn (bvar b)) 0 with
          | Some q => [(tpos (2 * q + tnum_n Fst), ptr b, List.length targets)]
          | None => []
          end
   end) ++ tm_acts ptr context tm.
Proof. reflexivity. Qed.

Lemma urc_act v context n lc r (p : Z) :
  update_reference_count x86_backend v context n lc = Ok r ->
  exists q, position_of context (idn v) 0 = Some q /\ (2 * q + tnum_n Fst < MAXPOS)%N /\
            r = act_code (tpos (2 * q + tnum_n Fst), p, n) lc.
Proof.
  unfold update_reference_count, variable_temporary. destruct (position_of context (idn v) 0) as [q|]; cbn [rbind]; [|discriminate].
  cbn [b_temporary_from_position x86_backend x86_backend_with].
  destruct (temporary_from_position (2 * q + tnum_n Fst)) as [t|] eqn:Et; cbn [rbind]; [|discriminate].
  apply tfp_tpos in Et as [-> Hk]. intros H. exists q. split; [reflexivity|]. split; [exact Hk|].
  unfold act_code; cbn [fst snd]. destruct n as [|[|n]]; cbn [b_erase b_share_n x86_backend x86_backend_with] in H; inversion H; reflexivity.
Qed.

Lemma cwc_acts ptr context : forall tm lc cs lc',
  code_weakening_contraction x86_backend tm context lc = Ok (cs, lc') ->
  acts_code (tm_acts ptr context tm) lc = (cs, lc').
Proof.
  induction tm as [|[b targets] tm IH]; intros lc cs lc' H.
  - cbn in H. inversion H. reflexivity.
  - cbn [code_weakening_contraction] in H. rewrite tm_acts_cons.
    destruct (bchi b) eqn:Eb; [| |apply IH; exact H].
    all: destruct (update_reference_count x86_backend (bvar b) context (List.length targets) lc) as [r|] eqn:EU; cbn [rbind] in H; [|discriminate];
      destruct (urc_act _ _ _ _ _ (ptr b) EU) as (q & Ep & _ & ->); rewrite Ep; cbn [app acts_code];
      destruct (act_code (tpos (2 * q + tnum_n Fst), ptr b, List.length targets) lc) as [c1 lc1];
      destruct (code_weakening_contraction x86_backend tm context lc1) as [[c2 lc2]|] eqn:E2; cbn [rbind] in H; [|discriminate];
      inversion H; subst; rewrite (IH _ _ _ E2); reflexivity.
Qed.

Lemma tm_acts_ops ptr context tm :
  (forall b targets, In (b, targets) tm -> bchi b <> Ext -> position_of context (idn (bvar b)) 0 <> None) ->
  flat_map act_op (tm_acts ptr context tm) =
  flat_map (fun bt : binding * list N => rc_op (bchi (fst bt)) (ptr (fst bt)) (List.length (snd bt))) tm.
Proof.
  induction tm as [|[b targets] tm IH]; intros H; [reflexivity|].
  rewrite tm_acts_cons. cbn [flat_map fst snd]. rewrite flat_map_app. unfold act in *.
  rewrite IH; [|intros b0 t0 Hin Hne; apply (H b0 t0); [now right|exact Hne]]. f_equal.
  destruct (bchi b) eqn:Eb; [| |reflexivity].
  all: destruct (position_of context (idn (bvar b)) 0) eqn:Ep; [|exfalso; eapply (H b targets); [now left|rewrite Eb; discriminate|exact Ep]].
  all: cbn [flat_map app]; rewrite app_nil_r; unfold act_op, rc_op; cbn [fst snd]; destruct targets as [|t1 [|t2 ts]]; reflexivity.
Qed.

(* the theorem in terms of the code generator and the operations of the instrumented machine *)
Theorem x86_weakening_contraction_ok (ptr : binding -> Z) context F sp tm lc cs lc' pos s f :
  code_weakening_contraction x86_backend tm context lc = Ok (cs, lc') ->
  code_at im pos cs -> labels_at im pos cs -> frame_ok s sp -> rget s FREE = Some f ->
  (forall b targets t, In (b, targets) tm -> bchi b <> Ext ->
     variable_temporary x86_backend Fst context (idn (bvar b)) = Ok t ->
     lget s sp t = Some (ptr b) /\ (ptr b = 0 \/ is_blk (ptr b))) ->
  let acts := tm_acts ptr context tm in
  hb (n_erase acts) (n_share acts) s f -> n_share acts <= 2 ^ 31 - 1 -> n_erase acts <= 2 ^ 31 - 1 ->
  let ops := flat_map (fun bt : binding * list N => rc_op (bchi (fst bt)) (ptr (fst bt)) (List.length (snd bt))) tm in
  exists s', steps im pos s (pnth pos (List.length cs)) s' /\
    st_eqB (abs_heap F s') (hrun ops (abs_heap F s)) /\
    same_but_temp_free s s' /\ frame_ok s' sp /\
    rget s' FREE = Some (Heap.free (hrun ops (abs_heap F s))).
Proof.
  intros HC CA LA FR Hf HV acts HB HS HR ops.
  pose proof (cwc_acts ptr context tm lc cs lc' HC) as HA. fold acts in HA.
  (* every non-ext binding of tm has a position: otherwise the generator fails *)
  assert (Hpos : forall b targets, In (b, targets) tm -> bchi b <> Ext -> position_of context (idn (bvar b)) 0 <> None).
  { clear -HC. revert lc cs lc' HC. induction tm as [|[b0 t0] tm IH]; intros lc cs lc' HC b targets Hin Hne; [destruct Hin|].
    cbn [code_weakening_contraction] in HC. destruct Hin as [E|Hin].
    - inversion E; subst. destruct (bchi b) eqn:Eb; try congruence.
      all: unfold update_reference_count, variable_temporary in HC; destruct (position_of context (idn (bvar b)) 0); cbn [rbind] in HC; [discriminate|discriminate].
    - destruct (bchi b0).
      3: eapply IH; eauto.
      all: destruct (update_reference_count x86_backend (bvar b0) context (List.length t0) lc) as [[c1 lc1]|]; cbn [rbind] in HC; try discriminate;
        destruct (code_weakening_contraction x86_backend tm context lc1) as [[c2 lc2]|] eqn:E2; cbn [rbind] in HC; try discriminate; eapply IH; eauto. }
  assert (HVa : Forall (fun a : act => exists k, fst (fst a) = tpos k /\ (k < MAXPOS)%N /\ lget s sp (tpos k) = Some (snd (fst a)) /\
                                            (snd (fst a) = 0 \/ is_blk (snd (fst a)))) acts).
  { unfold acts, tm_acts. apply Forall_forall. intros a Ha. apply in_flat_map in Ha as ([b targets] & Hin & Ha). cbn [fst snd] in Ha.
    destruct (bchi b) eqn:Eb; [| |destruct Ha].
    all: destruct (position_of context (idn (bvar b)) 0) as [q|] eqn:Ep; [|destruct Ha]; destruct Ha as [<-|[]]; cbn [fst snd];
      assert (Hne : bchi b <> Ext) by (rewrite Eb; discriminate);
      (* the generator succeeded, so the position has a temporary *)
      assert (Hk : (2 * q + tnum_n Fst < MAXPOS)%N);
      [ clear -HC Hin Ep Hne; revert lc cs lc' HC; induction tm as [|[b0 t0] tm IH]; intros lc cs lc' HC; [destruct Hin|];
        cbn [code_weakening_contraction] in HC; destruct Hin as [E|Hin];
        [ inversion E; subst; destruct (bchi b) eqn:Eb'; try congruence;
          unfold update_reference_count, variable_temporary in HC; rewrite Ep in HC; cbn [b_temporary_from_position x86_backend x86_backend_with] in HC;
          destruct (temporary_from_position (2 * q + tnum_n Fst)) eqn:Et; cbn [rbind] in HC; try discriminate; apply tfp_tpos in Et; tauto
        | destruct (bchi b0);
          [ destruct (update_reference_count x86_backend (bvar b0) context (List.length t0) lc) as [[c1 lc1]|]; cbn [rbind] in HC; try discriminate;
            destruct (code_weakening_contraction x86_backend tm context lc1) as [[c2 lc2]|] eqn:E2; cbn [rbind] in HC; try discriminate; eapply IH; eauto
          | destruct (update_reference_count x86_backend (bvar b0) context (List.length t0) lc) as [[c1 lc1]|]; cbn [rbind] in HC; try discriminate;
            destruct (code_weakening_contraction x86_backend tm context lc1) as [[c2 lc2]|] eqn:E2; cbn [rbind] in HC; try discriminate; eapply IH; eauto
          | eapply IH; eauto ] ]
      | exists (2 * q + tnum_n Fst)%N; split; [reflexivity|]; split; [exact Hk|];
        apply (HV b targets (tpos (2 * q + tnum_n Fst)) Hin Hne);
        unfold variable_temporary; rewrite Ep; cbn [b_temporary_from_position x86_backend x86_backend_with]; now apply tpos_tfp ]. }
  destruct (x86_acts_ok F sp acts lc cs lc' pos s f HA CA LA FR Hf HVa HB HS HR) as (s' & A & B & C & D & E).
  unfold ops. rewrite <- (tm_acts_ops ptr context tm Hpos). fold acts. eauto 10.
Qed.
End WC.

(* the hypotheses are satisfiable: drop x, duplicate y, keep the integer z *)
Definition exs_T := Decl ("T"%string, 0%N).
Definition exs_ctx : ctx := [mkb ("x"%string, 1%N) Prd exs_T; mkb ("y"%string, 2%N) Prd exs_T; mkb ("z"%string, 3%N) Ext I64].
Definition exs_re : list (binding * ident) :=
  [(mkb ("y1"%string, 4%N) Prd exs_T, ("y"%string, 2%N)); (mkb ("y2"%string, 5%N) Prd exs_T, ("y"%string, 2%N));
   (mkb ("z1"%string, 6%N) Ext I64, ("z"%string, 3%N))].
Definition exs_tm := transpose exs_re exs_ctx.
Definition exs_code : list xcode := match code_weakening_contraction x86_backend exs_tm exs_ctx 0 with Ok (cs, _) => cs | Err _ => [] end.
Definition exs_sp : Z := STACK_TOP - 4096.
Definition exs_state : xstate :=
  rset (rset (rset (rset (rset (init_state []) 0 (Some exs_sp)) HEAP (Some HEAP_BASE)) FREE (Some (HEAP_BASE + 192)))
             4 (Some (HEAP_BASE + 64))) 6 (Some (HEAP_BASE + 128)).
Definition exs_ptr (b : binding) : Z := match snd (bvar b) with 1%N => HEAP_BASE + 64 | 2%N => HEAP_BASE + 128 | _ => 0 end.
Fixpoint exs_nodupb (l : list string) : bool :=
  match l with [] => true | x :: r => negb (existsb (String.eqb x) r) && exs_nodupb r end.
Lemma exs_nodupb_sound l : exs_nodupb l = true -> NoDup l.
Proof.
  induction l as [|x r IH]; cbn [exs_nodupb]; intros H; [constructor|].
  apply andb_true_iff in H as [H1 H2]. constructor; auto.
  intros Hin. apply negb_true_iff in H1. assert (existsb (String.eqb x) r = true); [|congruence].
  apply existsb_exists. exists x. split; [exact Hin|apply String.eqb_refl].
Qed.

Example x86_substitute_memory_example :
  let ops := flat_map (fun bt : binding * list N => rc_op (bchi (fst bt)) (exs_ptr (fst bt)) (List.length (snd bt))) exs_tm in
  ops = [Heap.OErase (HEAP_BASE + 64); Heap.OShare (HEAP_BASE + 128) 1] /\
  exists lc', code_weakening_contraction x86_backend exs_tm exs_ctx 0 = Ok (exs_code, lc') /\
  exists s', steps (mk_image exs_code) 1 exs_state (pnth 1 (List.length exs_code)) s' /\
    st_eqB (abs_heap (HEAP_BASE + 192) s') (hrun ops (abs_heap (HEAP_BASE + 192) exs_state)) /\
    rget s' FREE = Some (HEAP_BASE + 64) /\ hword s' (HEAP_BASE + 64) = HEAP_BASE + 192 /\ hword s' (HEAP_BASE + 128) = 1.
Proof.
  intros ops. split; [vm_compute; reflexivity|].
  destruct (code_weakening_contraction x86_backend exs_tm exs_ctx 0) as [[cs lc']|] eqn:E; [|vm_compute in E; discriminate].
  assert (Ecs : exs_code = cs) by (unfold exs_code; rewrite E; reflexivity). exists lc'. rewrite Ecs. split; [reflexivity|].
  destruct (mk_image_code_labels cs) as [HC HL]; [apply exs_nodupb_sound; rewrite <- Ecs; vm_compute; reflexivity|].
  assert (Hz : forall x, hword exs_state x = 0) by (intros x; unfold hword; cbn [heap exs_state rset init_state]; now rewrite PM.gempty).
  destruct (x86_weakening_contraction_ok (mk_image cs) exs_ptr exs_ctx (HEAP_BASE + 192) exs_sp exs_tm 0 cs lc' 1 exs_state (HEAP_BASE + 192) E HC HL)
    as (s' & ST & EQ & _ & _ & Hf).
  - split; [vm_compute; reflexivity|exact sp_ok_below_top].
  - vm_compute; reflexivity.
  - intros b targets t Hin Hne Ht. vm_compute in Hin.
    destruct Hin as [Ei|[Ei|[Ei|[]]]]; inversion Ei; subst b targets; try (exfalso; apply Hne; reflexivity);
      vm_compute in Ht; inversion Ht; subst t; (split; [vm_compute; reflexivity|right]).
    + apply (is_blk_nth 1); unfold HEAP_SIZE; lia.
    + apply (is_blk_nth 2); unfold HEAP_SIZE; lia.
  - split; [intros x _; rewrite Hz; vm_compute; split; discriminate|vm_compute; split; discriminate].
  - vm_compute; discriminate.
  - vm_compute; discriminate.
  - exists s'. split; [exact ST|]. split; [exact EQ|].
    assert (Eb1 : is_blk (HEAP_BASE + 64)) by (apply (is_blk_nth 1); unfold HEAP_SIZE; lia).
    assert (Eb2 : is_blk (HEAP_BASE + 128)) by (apply (is_blk_nth 2); unfold HEAP_SIZE; lia).
    destruct EQ as (_ & _ & _ & EM).
    split; [rewrite Hf; f_equal; vm_compute; reflexivity|]. split.
    + change (hword s' (HEAP_BASE + 64)) with (Heap.hdr (Heap.m (abs_heap (HEAP_BASE + 192) s') (HEAP_BASE + 64))). rewrite (EM _ Eb1).
      vm_compute. reflexivity.
    + change (hword s' (HEAP_BASE + 128)) with (Heap.hdr (Heap.m (abs_heap (HEAP_BASE + 192) s') (HEAP_BASE + 128))). rewrite (EM _ Eb2).
      vm_compute. reflexivity.
Qed.
Print Assumptions x86_weakening_contraction_ok.
Print Assumptions x86_substitute_memory_example.
