(* C15 -> C12: the output of the type checker satisfies the typing guard [tg] of the pipeline theorem.
   Term level.  An induction over [check_term_gen]: the annotated output term satisfies [tg] in every scope G that
   agrees with the checker's context ([ctx_rel]: the rightmost binding of a name in the context is the first one in G),
   relative to a FINAL world (stF, D, C, q): every instance of the final symbol table stF is a declared type of the
   compiled declarations D/C, every source definition is a definition of the output q with the same signature.
   The frame facts (pinv, same_templates, grows) of every step are those of Proof/CheckPolySound.v.
   All term forms ([check_term_gen_ptg]); [core_frag] (the forms without constructor / destructor / case / new) is
   only defined here. *)
From Coq Require Import List ZArith NArith String Bool Permutation Lia.
From SCC Require Import Base.Sexp Lang.SynUtil Lang.FunSyn Lang.FunTy Lang.CoreSyn Model.Check Sem.FunTyping Sem.FunNames
  Sem.AxSem Sem.FunSem Sem.FsCheck Sem.CoreCheck Model.Fun2Core Model.Fun2CoreGuard Model.Fun2CoreTyGuard
  Proof.FunInd Proof.FunEq Proof.CheckAnn Proof.TypingReject Proof.CheckBuild Proof.CheckMono Proof.CheckMonoSound
  Proof.StringFacts Proof.PrintInj Proof.CheckPoly Proof.CheckInstBase Proof.CheckPolySound Proof.CheckScope Proof.Fun2CoreInv Proof.Fun2CoreTyBase.
Import ListNotations.
Open Scope string_scope.
Open Scope list_scope.

Definition ctx_rel (ctx : fctx) (G : cctx) : Prop :=
  forall v, gl G (new_id v) = option_map compile_binding (lookup_last ctx v).

Lemma lookup_last_app : forall a b v,
  lookup_last (a ++ b) v = match lookup_last b v with Some x => Some x | None => lookup_last a v end.
Proof.
  induction a as [|x r IH]; intros b v; simpl.
  - destruct (lookup_last b v); reflexivity.
  - rewrite IH. destruct (lookup_last b v); reflexivity.
Qed.
Lemma lookup_last_var : forall c v b, lookup_last c v = Some b -> fbvar b = v.
Proof.
  induction c as [|x r IH]; intros v b H; simpl in H; [discriminate|].
  destruct (lookup_last r v) eqn:E; [inversion H; subst; eauto|].
  destruct (String.eqb (fbvar x) v) eqn:Ev; [|discriminate]. inversion H; subst. apply String.eqb_eq. exact Ev.
Qed.
Lemma lookup_last_notin : forall c v, mem v (fvars c) = false -> lookup_last c v = None.
Proof.
  induction c as [|x r IH]; intros v H; simpl in *; [reflexivity|].
  apply orb_false_iff in H. destruct H as [H1 H2]. rewrite (IH _ H2). rewrite String.eqb_sym, H1. reflexivity.
Qed.
Lemma gl_app : forall a b x, gl (a ++ b) x = match gl a x with Some y => Some y | None => gl b x end.
Proof.
  induction a as [|y r IH]; intros b x; simpl; [reflexivity|].
  unfold gl in *. simpl. destruct (cident_eqb (cbvar y) x); [reflexivity|apply IH].
Qed.
Lemma gl_nodup : forall c v, nodup (fvars c) = true ->
  gl (compile_ctx c) (new_id v) = option_map compile_binding (lookup_last c v).
Proof.
  induction c as [|x r IH]; intros v H; simpl in *; [reflexivity|].
  apply andb_true_iff in H. destruct H as [H1 H2]. apply negb_true_iff in H1.
  unfold gl in *. simpl. rewrite cid_eqb_new_id.
  destruct (String.eqb (fbvar x) v) eqn:Ev.
  - apply String.eqb_eq in Ev. subst v. rewrite (lookup_last_notin _ _ H1). reflexivity.
  - rewrite (IH v H2). destruct (lookup_last r v); reflexivity.
Qed.
Lemma ctx_rel_snoc : forall ctx G b, ctx_rel ctx G -> ctx_rel (ctx ++ [b]) (compile_binding b :: G).
Proof.
  intros ctx G b R v. rewrite lookup_last_app. simpl. unfold gl. simpl. rewrite cid_eqb_new_id.
  destruct (String.eqb (fbvar b) v); [reflexivity|]. apply R.
Qed.
Lemma ctx_rel_app : forall ctx G c, nodup (fvars c) = true -> ctx_rel ctx G -> ctx_rel (ctx ++ c) (compile_ctx c ++ G).
Proof.
  intros ctx G c N R v. rewrite lookup_last_app, gl_app, (gl_nodup _ _ N).
  destruct (lookup_last c v); [reflexivity|]. apply R.
Qed.
Lemma ctx_rel_init : forall c, nodup (fvars c) = true -> ctx_rel c (compile_ctx c).
Proof. intros c N v. apply gl_nodup. exact N. Qed.

Lemma var_ok_rel : forall ctx G v b, ctx_rel ctx G -> lookup_last ctx v = Some b ->
  var_ok G v (Some (fbty b)) (compile_chi (fbchi b)) = true.
Proof.
  intros ctx G v b R H. unfold var_ok. rewrite R, H. simpl. apply cbinding_eqb_eq.
  unfold compile_binding. rewrite (lookup_last_var _ _ _ H). reflexivity.
Qed.
Lemma lookup_var_last : forall ctx v found, lookup_var ctx v = COk found ->
  exists b, lookup_last ctx v = Some b /\ fbchi b = FPrd /\ fbty b = found.
Proof.
  intros ctx v found H. unfold lookup_var in H. destruct (lookup_last ctx v) as [b|]; [|discriminate].
  destruct (fbchi b) eqn:E; [|discriminate]. inversion H. eauto.
Qed.
Lemma lookup_covar_last : forall ctx v found, lookup_covar ctx v = COk found ->
  exists b, lookup_last ctx v = Some b /\ fbchi b = FCns /\ fbty b = found.
Proof.
  intros ctx v found H. unfold lookup_covar in H. destruct (lookup_last ctx v) as [b|]; [|discriminate].
  destruct (fbchi b) eqn:E; [discriminate|]. inversion H. eauto.
Qed.
Lemma nodup_str_eq : forall l, nodup_str l = nodup l.
Proof. induction l as [|x r IH]; simpl; [reflexivity|]. rewrite IH. reflexivity. Qed.

Fixpoint core_frag (t : fterm) : bool :=
  match t with
  | FVar _ _ _ | FLit _ => true
  | FOp a _ b => core_frag a && core_frag b
  | FIfC _ a b th el _ => core_frag a && match b with Some b' => core_frag b' | None => true end && core_frag th && core_frag el
  | FPrint _ a n _ => core_frag a && core_frag n
  | FLet _ _ a b _ => core_frag a && core_frag b
  | FCall _ args _ => (fix go (l : list fterm) : bool := match l with [] => true | a :: r => core_frag a && go r end) args
  | FCtor _ _ _ | FDtor _ _ _ _ _ | FCase _ _ _ _ | FNew _ _ => false
  | FLabel _ t _ | FGoto _ t _ | FExit t _ | FParen t => core_frag t
  end.
Definition core_frags (l : list fterm) : bool := forallb core_frag l.
Lemma core_frags_eq : forall l,
  (fix go (l : list fterm) : bool := match l with [] => true | a :: r => core_frag a && go r end) l = core_frags l.
Proof. induction l; simpl; [reflexivity|]. rewrite IHl. reflexivity. Qed.

Definition any_calls_main (l : list fterm) : bool := existsb calls_main l.
Lemma any_calls_main_eq : forall l,
  (fix go (l : list fterm) : bool := match l with [] => false | y :: r => calls_main y || go r end) l = any_calls_main l.
Proof. induction l; simpl; [reflexivity|]. rewrite IHl. reflexivity. Qed.

Definition any_cls_cm (l : list fclause) : bool := existsb (fun c => calls_main (clause_body c)) l.
Lemma any_cls_cm_eq : forall l,
  (fix go (l : list fclause) : bool :=
     match l with [] => false | FClause _ _ _ _ body :: r => calls_main body || go r end) l = any_cls_cm l.
Proof. induction l as [|[? ? ? ? b] r IH]; simpl; [reflexivity|]. rewrite IH. reflexivity. Qed.

Lemma list_eqb_str_refl : forall l, list_eqb String.eqb l l = true.
Proof. induction l as [|x r IH]; simpl; [reflexivity|]. rewrite String.eqb_refl, IH. reflexivity. Qed.
Lemma split_last_snoc : forall l b, split_last (l ++ [b]) = Some (l, b).
Proof.
  induction l as [|x r IH]; intros b; simpl; [reflexivity|]. rewrite IH.
  destruct (r ++ [b]) eqn:E; [destruct r; discriminate|reflexivity].
Qed.
Lemma fparams_ok_zip : forall ns sg, List.length ns = List.length sg ->
  fparams_ok (compile_ctx (zip_names ns sg)) (compile_ctx sg) = true.
Proof.
  induction ns as [|n r IH]; intros [|b br] H; simpl in *; try discriminate; [reflexivity|].
  rewrite IH by lia. unfold csame_sig. simpl.
  rewrite (proj2 (cchi_eqb_eq _ _) eq_refl), (proj2 (cty_eqb_eq _ _) eq_refl). reflexivity.
Qed.
Lemma zip_names_in_ty : forall ns sg b, In b (zip_names ns sg) -> exists b', In b' sg /\ fbty b = fbty b'.
Proof.
  induction ns as [|n r IH]; intros [|x br] b H; simpl in *; try contradiction.
  destruct H as [<-|H]; [exists x; simpl; auto|]. destruct (IH _ _ H) as [b' [? ?]]. eauto.
Qed.

Definition show_items := fix go (l : list fty) : string :=
  match l with [] => ""%string | x :: l' => (", " ++ show_fty x ++ go l')%string end.
Lemma show_items_print : forall r, Forall (fun t => show_fty t = print_ty t) r ->
  (show_items r ++ "]")%string = fold_right (fun b acc => (", " ++ print_ty b ++ acc)%string) "]"%string r.
Proof.
  intros r H. induction H as [|x l Hx _ IH]; [reflexivity|].
  change (show_items (x :: l)) with (", " ++ show_fty x ++ show_items l)%string. cbn [fold_right].
  rewrite <- IH, Hx. rewrite !sapp_assoc. reflexivity.
Qed.
Lemma show_fty_print : forall t, show_fty t = print_ty t.
Proof.
  induction t using fty_ind'; [reflexivity|].
  destruct args as [|a r].
  - simpl. rewrite sapp_nil_r. reflexivity.
  - inversion H as [|? ? Ha Hr]; subst.
    change (show_fty (FDecl n (a :: r))) with (n ++ "[" ++ show_fty a ++ show_items r ++ "]")%string.
    rewrite (show_items_print r Hr), Ha. reflexivity.
Qed.
Lemma compile_ty_decl : forall n a, compile_ty (FDecl n a) = CDecl (new_id (n ++ print_targs a)).
Proof. intros n a. unfold compile_ty. rewrite show_fty_print, print_ty_decl. reflexivity. Qed.

(* the compiled signature of a source xtor signature, found by name, in related lists of signatures *)
Lemma find_xtor_sig : forall {Y} (f : Y -> cxtorsig) (R : xsig -> Y -> Prop),
  (forall s c, R s c -> cxname (f c) = new_id (xs_name s)) ->
  forall n s ss cs, Forall2 R ss cs -> find (fun s => String.eqb (xs_name s) n) ss = Some s ->
  exists c, find (fun sg => cident_eqb (cxname sg) (new_id n)) (map f cs) = Some (f c) /\ R s c.
Proof.
  intros Y f R Hn n s ss cs HF. induction HF as [|x c l l' Hx _ IH]; simpl; intros Hf; [discriminate|].
  rewrite (Hn _ _ Hx), cid_eqb_new_id.
  destruct (String.eqb (xs_name x) n); [inversion Hf; subst; eauto|auto].
Qed.

Section Tg.
  Variable ts : list tdecl.
  Variable fs : list fdef.
  Hypothesis W : poly_world ts fs.
  Notation pinv := (pinv ts).

  Variable q : fcprog.
  Variables D C : list ctydecl.
  Variable stF : symtab.
  Hypothesis HtyF : forall t, ty_names_ok t = true -> has_inst_p stF t -> tyd D C (compile_ty t) = true.
  Hypothesis HdefF : forall f d, FunTyping.find_def fs f = Some d ->
    exists d', ffind_def q f = Some d' /\ fdctx d' = fdctx d /\ fdret d' = fdret d.

  Definition ctx_inst (ctx : fctx) : Prop := forall b, In b ctx -> has_inst_p stF (fbty b).
  (* how the xtor signatures of an instance in D / C relate to the xtors of its template (used by HdataF / HcodataF below:
     every instance of stF is a compiled declaration whose xtors are the instantiated xtors of its template, in order) *)
  Definition Rdata (td : tdecl) (targs : list fty) (s : xsig) (c : fctorsig) : Prop :=
    fctname c = xs_name s /\ fctargs c = inst_ctx (td_params td) targs (xs_args s) /\ ctx_inst (fctargs c).
  Definition Rcodata (td : tdecl) (targs : list fty) (s : xsig) (c : fdtorsig) : Prop :=
    fdtname c = xs_name s /\ fdtargs c = inst_ctx (td_params td) targs (xs_args s)
    /\ (exists r0, xs_ret s = Some r0 /\ fdtcont c = inst (td_params td) targs r0)
    /\ ctx_inst (fdtargs c) /\ has_inst_p stF (fdtcont c).
  Hypothesis HdataF : forall td targs, In td ts -> td_pol td = FData -> targs_ok ts td targs ->
    has_inst_p stF (FDecl (td_name td) targs) ->
    exists cs, find_decl D (new_id (td_name td ++ print_targs targs))
               = Some (mkct CData (new_id (td_name td ++ print_targs targs)) (map compile_ctor cs))
      /\ Forall2 (Rdata td targs) (td_xtors td) cs.
  Hypothesis HcodataF : forall td targs, In td ts -> td_pol td = FCodata -> targs_ok ts td targs ->
    has_inst_p stF (FDecl (td_name td) targs) ->
    exists ds, find_decl C (new_id (td_name td ++ print_targs targs))
               = Some (mkct CCodata (new_id (td_name td ++ print_targs targs)) (map compile_dtor ds))
      /\ Forall2 (Rcodata td targs) (td_xtors td) ds.

  Notation tg := (tg q D C).
  Notation tg_args := (tg_args q D C).
  Notation tg_arg := (tg_arg q D C).

  Lemma has_ty_of : forall t T, fterm_type t = Some T -> has_ty t (compile_ty T) = true.
  Proof. intros t T H. unfold has_ty, tyo. rewrite H. simpl. apply cty_eqb_eq. reflexivity. Qed.
  Lemma has_ty_i64 : forall t, fterm_type t = Some FI64 -> has_ty t CI64 = true.
  Proof. intros t H. exact (has_ty_of t FI64 H). Qed.
  Lemma same_ty_of : forall t T, fterm_type t = Some T -> same_ty t (Some T) = true.
  Proof. intros t T H. simpl. apply has_ty_of. exact H. Qed.

  Lemma ctx_inst_snoc : forall ctx b, ctx_inst ctx -> has_inst_p stF (fbty b) -> ctx_inst (ctx ++ [b]).
  Proof. intros ctx b H Hb x Hx. apply in_app_or in Hx. destruct Hx as [Hx|[<-|[]]]; auto. Qed.

  Lemma ctx_inst_app : forall a b, ctx_inst a -> ctx_inst b -> ctx_inst (a ++ b).
  Proof. intros a b Ha Hb x Hx. apply in_app_or in Hx. destruct Hx; auto. Qed.
  Lemma ctx_inst_zip : forall ns sg, ctx_inst sg -> ctx_inst (zip_names ns sg).
  Proof. intros ns sg H b Hb. destruct (zip_names_in_ty _ _ _ Hb) as [b' [Hin ->]]. auto. Qed.

  (* the typing guard of the output term t', relative to the final world.  [calls_main]: tg of a call to main asks that
     the program is flagged as calling main; [is_cns_var]: tg_arg at a producer position needs a non-covariable *)
  Definition ptg_at (t : fterm) : Prop :=
    forall eager st ctx T t' st' G,
      term_names_ok t = true -> ctx_names_ok ctx = true -> ty_names_ok T = true -> tables ts fs st -> pinv st ->
      check_term_gen eager t st ctx T = COk (t', st') ->
      grows st' stF -> has_inst_p stF T -> ctx_rel ctx G -> ctx_inst ctx ->
      (calls_main t' = true -> calls_main_prog q = true) ->
      tg G t' = true /\ fterm_type t' = Some T /\ is_cns_var t' = false.

  (* the calls_main obligation of a sub-term from that of the term: calls_main of the term is a disjunction over its sub-terms *)
  Ltac cm H := let X := fresh in intros X; apply H; simpl; rewrite ?any_calls_main_eq; unfold any_calls_main in *; simpl; rewrite X; rewrite ?orb_true_r; reflexivity.

  Lemma all_psound : forall l, Forall (psound_at ts fs) l.
  Proof. intros l. apply Forall_forall. intros x _. apply check_term_gen_psound. exact W. Qed.

  Lemma all_psound_cls : forall l, Forall (fun c => psound_at ts fs (clause_body c)) l.
  Proof. intros l. apply Forall_forall. intros x _. apply check_term_gen_psound. exact W. Qed.

  Lemma check_args_with_ptg : forall args, Forall ptg_at args ->
    forall eager sg st ctx args' st' G,
      terms_names_ok args = true -> ctx_names_ok ctx = true -> ctx_names_ok sg = true ->
      tables ts fs st -> pinv st ->
      check_args_with (check_term_gen eager) args sg st ctx = COk (args', st') ->
      List.length args = List.length sg ->
      grows st' stF -> ctx_rel ctx G -> ctx_inst ctx ->
      (any_calls_main args' = true -> calls_main_prog q = true) ->
      tg_args G args' (compile_ctx sg) = true.
  Proof.
    intros args HF. induction HF as [|a ar Ha HFr IH]; intros eager sg st ctx args' st' G Hm Hc Ht T I H Hlen GF R CI Hcm.
    - destruct sg; [|discriminate]. simpl in H. inversion H; subst. reflexivity.
    - destruct sg as [|b br]; [discriminate|]. simpl in Hlen. simpl in Hm, Ht.
      apply andb_true_iff in Hm. destruct Hm as [Hma Hmr]. apply andb_true_iff in Ht. destruct Ht as [Htb Htr].
      apply run_args_cons in H.
      destruct (fbchi b) eqn:Ech.
      + (* producer argument *)
        destruct H as (st1 & a' & st2 & ar' & H1 & H2 & H3 & ->).
        destruct (ty_check_sound ts fs W _ _ _ Htb T I H1) as [_ [I1 [S1 [G1 Hi1]]]].
        destruct (check_term_gen_psound ts fs W a eager st1 ctx _ a' st2 Hma Hc Htb (tables_same _ _ _ _ T S1) I1 H2) as [_ [I2 [S2 [G2 _]]]].
        assert (S12 : same_templates st st2) by frame.
        (* check_args_with_psound is stated for instantiated signatures: read br as inst_ctx [] [] br *)
        rewrite <- (inst_ctx_nil br) in H3.
        destruct (check_args_with_psound ts fs W ar (all_psound ar) eager [] [] br st2 ctx ar' st' Hmr Hc Htr eq_refl
                    (tables_same _ _ _ _ T S12) I2 H3) as [_ [I3 [S3 [G3 _]]]]; [lia|].
        rewrite inst_ctx_nil in H3.
        assert (G2F : grows st2 stF) by frame.
        assert (HiF : has_inst_p stF (fbty b)) by (eapply has_inst_grows; [|exact Hi1]; frame).
        destruct (Ha eager st1 ctx _ a' st2 G Hma Hc Htb (tables_same _ _ _ _ T S1) I1 H2 G2F HiF R CI ltac:(cm Hcm)) as [K1 [K2 K3]].
        simpl compile_ctx. rewrite tg_args_cons. unfold Fun2CoreTyGuard.tg_arg. simpl cbchi. rewrite Ech. simpl compile_chi. cbv iota.
        rewrite K3, K1. simpl cbty. rewrite (has_ty_of _ _ K2), (HtyF _ Htb HiF). simpl.
        apply (IH eager br st2 ctx ar' st' G Hmr Hc Htr (tables_same _ _ _ _ T S12) I2 H3); [lia|exact GF|exact R|exact CI|cm Hcm].
      + (* consumer argument: a covariable *)
        destruct H as (v & ann & chi & found & st1 & st2 & ar' & -> & _ & Hl & H1 & H2 & H3 & ->).
        destruct (lookup_covar_last _ _ _ Hl) as [b0 [Hb0 [Hb0c Hbt]]].
        destruct (lookup_covar_E _ _ _ Hl) as [_ [b1 [Hb1 Hbt1]]].
        assert (Hmf : ty_names_ok found = true) by (subst found; rewrite <- Hbt1; apply (ctx_names_ok_in ctx); assumption).
        destruct (ann_check_psound ts fs W ann found st st1 Hma Hmf T I H1) as [_ [I1 [S1 G1]]].
        destruct (check_equality_sound ts fs W _ _ _ _ Htb Hmf (tables_same _ _ _ _ T S1) I1 H2) as [Heq [_ [I2 [S2 [G2 Hi2]]]]].
        assert (S12 : same_templates st st2) by frame.
        (* check_args_with_psound is stated for instantiated signatures: read br as inst_ctx [] [] br *)
        rewrite <- (inst_ctx_nil br) in H3.
        destruct (check_args_with_psound ts fs W ar (all_psound ar) eager [] [] br st2 ctx ar' st' Hmr Hc Htr eq_refl
                    (tables_same _ _ _ _ T S12) I2 H3) as [_ [I3 [S3 [G3 _]]]]; [lia|].
        rewrite inst_ctx_nil in H3.
        assert (HiF : has_inst_p stF (fbty b)) by (eapply has_inst_grows; [|exact Hi2]; frame).
        simpl compile_ctx. rewrite tg_args_cons. unfold Fun2CoreTyGuard.tg_arg. simpl cbchi. rewrite Ech. simpl compile_chi. cbv iota.
        pose proof (var_ok_rel _ _ _ _ R Hb0) as Hv. rewrite Hb0c, Hbt in Hv. simpl in Hv. rewrite Hv.
        simpl cbty. rewrite Heq. rewrite (has_ty_of (FVar v (Some found) (Some FCns)) found eq_refl).
        rewrite <- Heq. rewrite (HtyF _ Htb HiF). simpl.
        apply (IH eager br st2 ctx ar' st' G Hmr Hc Htr (tables_same _ _ _ _ T S12) I2 H3); [lia|exact GF|exact R|exact CI|cm Hcm].
  Qed.
  Lemma check_args_ptg : forall args, Forall ptg_at args ->
    forall eager sg st ctx args' st' G,
      terms_names_ok args = true -> ctx_names_ok ctx = true -> ctx_names_ok sg = true ->
      tables ts fs st -> pinv st ->
      check_args (check_term_gen eager) args sg st ctx = COk (args', st') ->
      grows st' stF -> ctx_rel ctx G -> ctx_inst ctx ->
      (any_calls_main args' = true -> calls_main_prog q = true) ->
      tg_args G args' (compile_ctx sg) = true.
  Proof.
    intros args HF eager sg st ctx args' st' G Hm Hc Ht T I H GF R CI Hcm. apply run_args in H. destruct H as [El H].
    exact (check_args_with_ptg args HF eager sg st ctx args' st' G Hm Hc Ht T I H El GF R CI Hcm).
  Qed.

  (* the frame facts of one step, from Proof/CheckPolySound.v *)
  Lemma step_frame : forall t eager st ctx T t' st',
    term_names_ok t = true -> ctx_names_ok ctx = true -> ty_names_ok T = true -> tables ts fs st -> pinv st ->
    check_term_gen eager t st ctx T = COk (t', st') ->
    pinv st' /\ same_templates st st' /\ grows st st' /\ tables ts fs st'.
  Proof.
    intros t eager st ctx T t' st' Hm Hc HT Tb I H.
    destruct (check_term_gen_psound ts fs W t eager st ctx T t' st' Hm Hc HT Tb I H) as [_ [I1 [S1 [G1 _]]]].
    splits; auto. eapply tables_same; eassumption.
  Qed.

  Notation tg_clauses := (tg_clauses q D C).
  Notation tg_coclauses := (tg_coclauses q D C).

  Definition pc_ptg (pc : pclause) : Prop :=
    forall st ctx T t' st' G,
      ctx_names_ok ctx = true -> ty_names_ok T = true -> tables ts fs st -> pinv st ->
      pc_chk pc st ctx T = COk (t', st') ->
      grows st' stF -> has_inst_p stF T -> ctx_rel ctx G -> ctx_inst ctx ->
      (calls_main t' = true -> calls_main_prog q = true) ->
      tg G t' = true /\ fterm_type t' = Some T.

  Lemma prep_clauses_ptg : forall eager cls,
    Forall (fun c => ptg_at (clause_body c)) cls -> clauses_names_ok cls = true ->
    Forall pc_ptg (prep_clauses (check_term_gen eager) cls).
  Proof.
    intros eager cls HF. induction HF as [|[p x ns c b] r Hc _ IH]; intros Hm; simpl; constructor.
    - simpl in Hm. apply andb_true_iff in Hm. destruct Hm as [Hb _].
      unfold clause_names_ok in Hb. apply andb_true_iff in Hb. destruct Hb as [_ Hb].
      unfold pc_ptg. simpl. intros st ctx T t' st' G H1 H2 H3 H4 H5 H6 H7 H8 H9 H10.
      destruct (Hc eager st ctx T t' st' G Hb H1 H2 H3 H4 H5 H6 H7 H8 H9 H10) as [K1 [K2 _]]. auto.
    - apply IH. simpl in Hm. apply andb_true_iff in Hm. tauto.
  Qed.

  (* the part of one round of check_clauses that both kinds of clauses share *)
  Lemma clause_round : forall (is_case : bool) T td targs s sr pcls st ctx cls' leftover st',
    Forall (pc_psound ts fs) pcls -> Forall pc_ptg pcls ->
    ctx_names_ok ctx = true -> tables ts fs st -> pinv st ->
    In td ts -> targs_ok ts td targs -> (forall s0, In s0 (s :: sr) -> In s0 (td_xtors td)) ->
    td_pol td = (if is_case then FData else FCodata) -> (is_case = true -> ty_names_ok T = true) ->
    check_clauses is_case (print_targs targs) T (map xs_name (s :: sr)) pcls st ctx = COk (cls', leftover, st') ->
    exists cl pcls' bty body' st1 rest,
      Forall (pc_psound ts fs) pcls' /\ Forall pc_ptg pcls' /\ pc_ptg cl
      /\ pc_xtor cl = xs_name s
      /\ (if is_case then bty = T else exists r0, xs_ret s = Some r0 /\ bty = inst (td_params td) targs r0)
      /\ ty_names_ok bty = true
      /\ nodup (pc_names cl) = true
      /\ List.length (pc_names cl) = List.length (xs_args s)
      /\ ctx_names_ok (ctx ++ zip_names (pc_names cl) (inst_ctx (td_params td) targs (xs_args s))) = true
      /\ pc_chk cl st (ctx ++ zip_names (pc_names cl) (inst_ctx (td_params td) targs (xs_args s))) bty = COk (body', st1)
      /\ tables ts fs st1 /\ pinv st1
      /\ check_clauses is_case (print_targs targs) T (map xs_name sr) pcls' st1 ctx = COk (rest, leftover, st')
      /\ grows st1 st'
      /\ cls' = FClause (pc_pol cl) (pc_xtor cl) (pc_names cl)
                  (zip_names (pc_names cl) (inst_ctx (td_params td) targs (xs_args s))) body' :: rest.
  Proof.
    intros is_case T td targs s sr pcls st ctx cls' leftover st' HFs HFp Hc Tb I Htd Hok Hss Hpol HT H.
    change (map xs_name (s :: sr)) with (xs_name s :: map xs_name sr) in H. apply run_clauses_cons in H.
    destruct H as (cl & pcls' & sg & bty & body' & st1 & rest & Hx & Hperm & Hsig & Hnd & Elen & Hbody & Hrest & ->).
    assert (HFs' : Forall (pc_psound ts fs) (cl :: pcls')).
    { eapply Permutation_Forall; [apply Permutation_sym; eassumption|assumption]. }
    assert (HFp' : Forall pc_ptg (cl :: pcls')).
    { eapply Permutation_Forall; [apply Permutation_sym; eassumption|assumption]. }
    inversion HFs' as [|? ? Hcls HFsr]; subst. inversion HFp' as [|? ? Hclp HFpr]; subst.
    assert (Hs : In s (td_xtors td)) by (apply Hss; left; reflexivity).
    pose proof (PW_xnames _ _ W td s Htd Hs) as Nx.
    pose proof (targs_ok_names ts fs W _ _ Hok) as Nt.
    destruct (PW_sigs _ _ W td s Htd Hs) as [Nsg Nret].
    assert (Hsg : sg = inst_ctx (td_params td) targs (xs_args s)
                  /\ (if is_case then bty = T else exists r0, xs_ret s = Some r0 /\ bty = inst (td_params td) targs r0)).
    { destruct is_case.
      - destruct Hsig as [Eg ->].
        destruct (ctor_instance_sound ts fs W _ _ _ _ I Nx Nt Eg) as [td' [s' [Htd' [Hp' [Hs' [Hn' [_ ->]]]]]]].
        destruct (xtor_owner_unique ts fs W td td' s s' Htd Htd' ltac:(congruence) Hs Hs' ltac:(congruence)) as [<- <-].
        auto.
      - destruct (dtor_instance_sound ts fs W _ _ _ _ _ I Nx Nt Hsig) as [td' [s' [r0 [Htd' [Hp' [Hs' [Hn' [_ [Hr [-> ->]]]]]]]]]].
        destruct (xtor_owner_unique ts fs W td td' s s' Htd Htd' ltac:(congruence) Hs Hs' ltac:(congruence)) as [<- <-].
        eauto. }
    destruct Hsg as [-> Hbty]. rewrite inst_ctx_length in Elen.
    assert (Hmb : ty_names_ok bty = true).
    { destruct is_case; [subst; auto|]. destruct Hbty as [r0 [Hr ->]]. rewrite Hr in Nret. apply inst_names_ok; assumption. }
    assert (Hmc : ctx_names_ok (ctx ++ zip_names (pc_names cl) (inst_ctx (td_params td) targs (xs_args s))) = true).
    { apply ctx_names_ok_app; [assumption|]. apply ctx_names_ok_zip. apply inst_ctx_names_ok; assumption. }
    destruct (Hcls st _ bty body' st1 Hmc Hmb Tb I Hbody) as [_ [I1 [S1 [G1 _]]]].
    pose proof (tables_same _ _ _ _ Tb S1) as Tb1.
    destruct (check_clauses_psound ts fs W is_case T td targs (map xs_name sr) pcls' st1 ctx rest leftover st' HFsr Hc Tb1 I1 Htd Hok)
      as [used [_ [_ [_ [I2 [S2 [G2 _]]]]]]]; auto.
    { intros y Hy. apply in_map_iff in Hy. destruct Hy as [s0 [<- Hs0]]. apply in_map. apply Hss. right. assumption. }
    exists cl, pcls', bty, body', st1, rest. splits; auto.
    apply names_no_dups_ok. exact Hnd.
  Qed.

  Lemma check_clauses_case_ptg : forall T td targs ss pcls st ctx cls' leftover st' G cs,
    Forall (pc_psound ts fs) pcls -> Forall pc_ptg pcls ->
    ctx_names_ok ctx = true -> tables ts fs st -> pinv st ->
    In td ts -> targs_ok ts td targs -> (forall s, In s ss -> In s (td_xtors td)) -> td_pol td = FData ->
    ty_names_ok T = true -> has_inst_p stF T ->
    check_clauses true (print_targs targs) T (map xs_name ss) pcls st ctx = COk (cls', leftover, st') ->
    grows st' stF -> ctx_rel ctx G -> ctx_inst ctx ->
    (any_cls_cm cls' = true -> calls_main_prog q = true) ->
    Forall2 (Rdata td targs) ss cs ->
    tg_clauses G (Some T) cls' (map compile_ctor cs) = true.
  Proof.
    intros T td targs ss. induction ss as [|s sr IH];
      intros pcls st ctx cls' leftover st' G cs HFs HFp Hc Tb I Htd Hok Hss Hpol HT HiT H GF R CI Hcm HR.
    - simpl in H. inversion H; subst. inversion HR; subst. reflexivity.
    - inversion HR as [|? c ? cr Rc HRr]; subst.
      destruct (clause_round true T td targs s sr pcls st ctx cls' leftover st' HFs HFp Hc Tb I Htd Hok Hss Hpol (fun _ => HT) H)
        as [cl [pcls' [bty [body' [st1 [rest [HFs' [HFp' [Hclp [Hx [Hbty [Hmb [Hnd [Hlen [Hmc [Hbody [Tb1 [I1 [Hrest [G1 ->]]]]]]]]]]]]]]]]]]]].
      subst bty. destruct Rc as [En [Ea Ei]].
      set (cctx := zip_names (pc_names cl) (inst_ctx (td_params td) targs (xs_args s))) in *.
      assert (Hfv : fvars cctx = pc_names cl).
      { unfold fvars, cctx. apply zip_names_vars. rewrite inst_ctx_length. exact Hlen. }
      assert (Hnd' : nodup (fvars cctx) = true) by (rewrite Hfv; exact Hnd).
      destruct (Hclp st _ T body' st1 (compile_ctx cctx ++ G) Hmc HT Tb I Hbody (grows_trans _ _ _ G1 GF) HiT
                  (ctx_rel_app _ _ _ Hnd' R)) as [K1 K2].
      { apply ctx_inst_app; [exact CI|]. apply ctx_inst_zip. rewrite <- Ea. exact Ei. }
      { intros X. apply Hcm. unfold any_cls_cm. simpl. rewrite X. reflexivity. }
      simpl map. rewrite tg_clauses_cons. unfold Fun2CoreTyGuard.tg_clause.
      rewrite Hfv, list_eqb_str_refl. unfold compile_ctor at 1. simpl cxname. rewrite cid_eqb_new_id, Hx, En, String.eqb_refl.
      simpl cxargs. rewrite Ea. unfold cctx at 1. rewrite fparams_ok_zip by (rewrite inst_ctx_length; exact Hlen).
      rewrite nodup_str_eq, Hnd, K1, (same_ty_of _ _ K2). simpl.
      apply (IH pcls' st1 ctx rest leftover st' G cr HFs' HFp' Hc Tb1 I1 Htd Hok); auto.
      + intros s0 Hs0. apply Hss. right. exact Hs0.
      + intros X. apply Hcm. unfold any_cls_cm in *. simpl. rewrite X. apply orb_true_r.
  Qed.

  Lemma check_clauses_new_ptg : forall T td targs ss pcls st ctx cls' leftover st' G ds,
    Forall (pc_psound ts fs) pcls -> Forall pc_ptg pcls ->
    ctx_names_ok ctx = true -> tables ts fs st -> pinv st ->
    In td ts -> targs_ok ts td targs -> (forall s, In s ss -> In s (td_xtors td)) -> td_pol td = FCodata ->
    check_clauses false (print_targs targs) T (map xs_name ss) pcls st ctx = COk (cls', leftover, st') ->
    grows st' stF -> ctx_rel ctx G -> ctx_inst ctx ->
    (any_cls_cm cls' = true -> calls_main_prog q = true) ->
    Forall2 (Rcodata td targs) ss ds ->
    tg_coclauses G cls' (map compile_dtor ds) = true.
  Proof.
    intros T td targs ss. induction ss as [|s sr IH];
      intros pcls st ctx cls' leftover st' G ds HFs HFp Hc Tb I Htd Hok Hss Hpol H GF R CI Hcm HR.
    - simpl in H. inversion H; subst. inversion HR; subst. reflexivity.
    - inversion HR as [|? c ? cr Rc HRr]; subst.
      destruct (clause_round false T td targs s sr pcls st ctx cls' leftover st' HFs HFp Hc Tb I Htd Hok Hss Hpol
                  (fun X => ltac:(discriminate X)) H)
        as [cl [pcls' [bty [body' [st1 [rest [HFs' [HFp' [Hclp [Hx [Hbty [Hmb [Hnd [Hlen [Hmc [Hbody [Tb1 [I1 [Hrest [G1 ->]]]]]]]]]]]]]]]]]]]].
      destruct Hbty as [r0 [Hr0 ->]]. destruct Rc as [En [Ea [[r1 [Hr1 Er]] [Ei Hic]]]].
      rewrite Hr0 in Hr1. inversion Hr1; subst r1. clear Hr1.
      set (cctx := zip_names (pc_names cl) (inst_ctx (td_params td) targs (xs_args s))) in *.
      assert (Hfv : fvars cctx = pc_names cl).
      { unfold fvars, cctx. apply zip_names_vars. rewrite inst_ctx_length. exact Hlen. }
      assert (Hnd' : nodup (fvars cctx) = true) by (rewrite Hfv; exact Hnd).
      rewrite Er in Hic.
      destruct (Hclp st _ _ body' st1 (compile_ctx cctx ++ G) Hmc Hmb Tb I Hbody (grows_trans _ _ _ G1 GF) Hic
                  (ctx_rel_app _ _ _ Hnd' R)) as [K1 K2].
      { apply ctx_inst_app; [exact CI|]. apply ctx_inst_zip. rewrite <- Ea. exact Ei. }
      { intros X. apply Hcm. unfold any_cls_cm. simpl. rewrite X. reflexivity. }
      simpl map. rewrite tg_coclauses_cons. unfold Fun2CoreTyGuard.tg_coclause.
      rewrite Hfv, list_eqb_str_refl. unfold compile_dtor at 1. simpl cxname. rewrite cid_eqb_new_id, Hx, En, String.eqb_refl.
      simpl cxargs. rewrite split_last_snoc. rewrite Ea. unfold cctx at 1. rewrite fparams_ok_zip by (rewrite inst_ctx_length; exact Hlen).
      simpl cbchi. simpl cbty. rewrite Er, (has_ty_of _ _ K2), (HtyF _ Hmb Hic).
      rewrite nodup_str_eq, Hnd, K1. simpl.
      apply (IH pcls' st1 ctx rest leftover st' G cr HFs' HFp' Hc Tb1 I1 Htd Hok); auto.
      + intros s0 Hs0. apply Hss. right. exact Hs0.
      + intros X. apply Hcm. unfold any_cls_cm in *. simpl. rewrite X. apply orb_true_r.
  Qed.

  Theorem check_term_gen_ptg : forall t, ptg_at t.
  Proof.
    intros t. induction t using fterm_ind'; unfold ptg_at;
      intros eager st ctx T t' st' G Hm Hc HT Tb I Hk GF HiT R CI Hcm; simpl in Hm.
    - (* FVar *)
      apply run_var in Hk. destruct Hk as (_ & found & st1 & Hl & H1 & H2 & ->).
      destruct (lookup_var_last _ _ _ Hl) as [b0 [Hb0 [Hb0c Hbt]]].
      destruct (lookup_var_E _ _ _ Hl) as [_ [b1 [Hb1 Hbt1]]].
      assert (Hmf : ty_names_ok found = true) by (subst found; rewrite <- Hbt1; apply (ctx_names_ok_in ctx); assumption).
      destruct (ann_check_psound ts fs W ty found st st1 Hm Hmf Tb I H1) as [_ [I1 [S1 G1]]].
      destruct (check_equality_sound ts fs W _ _ _ _ HT Hmf (tables_same _ _ _ _ Tb S1) I1 H2) as [Heq _].
      rewrite tg_var. pose proof (var_ok_rel _ _ _ _ R Hb0) as Hv. rewrite Hb0c, Hbt, <- Heq in Hv. simpl in Hv.
      rewrite Hv. auto.
    - (* FLit *)
      apply run_lit in Hk. destruct Hk as [H1 ->].
      destruct (check_equality_sound ts fs W T FI64 _ _ HT eq_refl Tb I H1) as [Heq _]. subst T. auto.
    - (* FOp *)
      apply andb_true_iff in Hm. destruct Hm as [Hm1 Hm2].
      apply run_op in Hk. destruct Hk as (st1 & a' & st2 & b' & H1 & H2 & H3 & ->).
      destruct (check_equality_sound ts fs W FI64 T _ _ eq_refl HT Tb I H1) as [Heq [_ [I1 [S1 [G1 _]]]]]. subst T.
      destruct (step_frame _ _ _ _ FI64 _ _ Hm1 Hc eq_refl (tables_same _ _ _ _ Tb S1) I1 H2) as [I2 [S2 [G2 Tb2]]].
      destruct (step_frame _ _ _ _ FI64 _ _ Hm2 Hc eq_refl Tb2 I2 H3) as [I3 [S3 [G3 Tb3]]].
      destruct (IHt1 eager st1 ctx FI64 a' st2 G Hm1 Hc eq_refl (tables_same _ _ _ _ Tb S1) I1 H2 ltac:(frame) Logic.I R CI ltac:(cm Hcm)) as [K1 [K2 _]].
      destruct (IHt2 eager st2 ctx FI64 b' st' G Hm2 Hc eq_refl Tb2 I2 H3 GF Logic.I R CI ltac:(cm Hcm)) as [K3 [K4 _]].
      rewrite tg_op, K1, K3. rewrite (has_ty_i64 _ K2), (has_ty_i64 _ K4). auto.
    - (* FIfC *)
      apply andb_true_iff in Hm. destruct Hm as [Hm Hm4]. apply andb_true_iff in Hm. destruct Hm as [Hm Hm3].
      apply andb_true_iff in Hm. destruct Hm as [Hm1 Hm2].
      apply run_ifc in Hk. destruct Hk as (a' & st1 & b' & st2 & th' & st3 & el' & H1 & H2 & H3 & H4 & ->).
      destruct (step_frame _ _ _ _ FI64 _ _ Hm1 Hc eq_refl Tb I H1) as [I1 [S1 [G1 Tb1]]].
      assert (Hb : pinv st2 /\ grows st1 st2 /\ tables ts fs st2 /\
                   (grows st2 stF -> (match b' with Some b1 => calls_main b1 | None => false end = true -> calls_main_prog q = true) ->
                    match b' with Some b1 => tg G b1 && has_ty b1 CI64 | None => true end = true)).
      { destruct b as [b0|], b' as [b1|]; try contradiction.
        - destruct (step_frame _ _ _ _ FI64 _ _ Hm2 Hc eq_refl Tb1 I1 H2) as [I2 [S2 [G2 Tb2]]]. splits; auto.
          intros GF2 Hcm2.
          destruct (H b0 eq_refl eager st1 ctx FI64 b1 st2 G Hm2 Hc eq_refl Tb1 I1 H2 GF2 Logic.I R CI Hcm2) as [K1 [K2 _]].
          rewrite K1, (has_ty_i64 _ K2). reflexivity.
        - subst st2. splits; frame. }
      destruct Hb as [I2 [G2 [Tb2 Kb]]].
      destruct (step_frame _ _ _ _ _ _ _ Hm3 Hc HT Tb2 I2 H3) as [I3 [S3 [G3 Tb3]]].
      destruct (step_frame _ _ _ _ _ _ _ Hm4 Hc HT Tb3 I3 H4) as [I4 [S4 [G4 Tb4]]].
      destruct (IHt1 eager st ctx FI64 a' st1 G Hm1 Hc eq_refl Tb I H1 ltac:(frame) Logic.I R CI ltac:(cm Hcm)) as [K1 [K2 _]].
      destruct (IHt2 eager st2 ctx T th' st3 G Hm3 Hc HT Tb2 I2 H3 ltac:(frame) HiT R CI ltac:(cm Hcm)) as [K3 [K4 _]].
      destruct (IHt3 eager st3 ctx T el' st' G Hm4 Hc HT Tb3 I3 H4 GF HiT R CI ltac:(cm Hcm)) as [K5 [K6 _]].
      rewrite tg_ifc, K1, (has_ty_i64 _ K2), K3, K5, (same_ty_of _ _ K4), (same_ty_of _ _ K6).
      rewrite Kb; [auto|frame|]. destruct b' as [b1|]; [|discriminate]. cm Hcm.
    - (* FPrint *)
      apply andb_true_iff in Hm. destruct Hm as [Hm1 Hm2].
      apply run_print in Hk. destruct Hk as (a' & st1 & n' & H1 & H2 & ->).
      destruct (step_frame _ _ _ _ FI64 _ _ Hm1 Hc eq_refl Tb I H1) as [I1 [S1 [G1 Tb1]]].
      destruct (step_frame _ _ _ _ _ _ _ Hm2 Hc HT Tb1 I1 H2) as [I2 [S2 [G2 Tb2]]].
      destruct (IHt1 eager st ctx FI64 a' st1 G Hm1 Hc eq_refl Tb I H1 ltac:(frame) Logic.I R CI ltac:(cm Hcm)) as [K1 [K2 _]].
      destruct (IHt2 eager st1 ctx T n' st' G Hm2 Hc HT Tb1 I1 H2 GF HiT R CI ltac:(cm Hcm)) as [K3 [K4 _]].
      rewrite tg_print, K1, (has_ty_i64 _ K2), K3, (same_ty_of _ _ K4). auto.
    - (* FLet *)
      apply andb_true_iff in Hm. destruct Hm as [Hm Hm3]. apply andb_true_iff in Hm. destruct Hm as [Hm1 Hm2].
      apply run_let in Hk. destruct Hk as (st1 & a' & st2 & b' & H1 & H2 & H3 & ->).
      destruct (ty_check_sound ts fs W _ _ _ Hm1 Tb I H1) as [_ [I1 [S1 [G1 Hi1]]]].
      pose proof (tables_same _ _ _ _ Tb S1) as Tb1.
      destruct (step_frame _ _ _ _ _ _ _ Hm2 Hc Hm1 Tb1 I1 H2) as [I2 [S2 [G2 Tb2]]].
      assert (Hc' : ctx_names_ok (ctx ++ [mkfb v FPrd vty]) = true).
      { apply ctx_names_ok_app; [assumption|]. unfold ctx_names_ok. simpl. rewrite Hm1. reflexivity. }
      destruct (step_frame _ _ _ _ _ _ _ Hm3 Hc' HT Tb2 I2 H3) as [I3 [S3 [G3 Tb3]]].
      assert (HiV : has_inst_p stF vty) by (eapply has_inst_grows; [|exact Hi1]; frame).
      destruct (IHt1 eager st1 ctx vty a' st2 G Hm2 Hc Hm1 Tb1 I1 H2 ltac:(frame) HiV R CI ltac:(cm Hcm)) as [K1 [K2 _]].
      destruct (IHt2 eager st2 _ T b' st' _ Hm3 Hc' HT Tb2 I2 H3 GF HiT (ctx_rel_snoc _ _ (mkfb v FPrd vty) R) (ctx_inst_snoc _ (mkfb v FPrd vty) CI HiV) ltac:(cm Hcm)) as [K3 [K4 _]].
      rewrite tg_let, K1, (has_ty_of _ _ K2), (HtyF _ Hm1 HiV). unfold compile_binding in K3. simpl in K3. rewrite K3, (same_ty_of _ _ K4). auto.
    - (* FCall *)
      rewrite terms_names_ok_eq in Hm.
      apply run_call in Hk. destruct Hk as (types & ret & st1 & args' & Ed & H1 & H2 & ->).
      rewrite (t_df _ _ _ Tb) in Ed. destruct (FunTyping.find_def fs f) as [d|] eqn:Ef; [|discriminate]. simpl in Ed. inversion Ed; subst.
      assert (Hdin : In d fs /\ fdname d = f).
      { pose proof Ef as Ef'. unfold FunTyping.find_def in Ef'; apply find_some in Ef'. destruct Ef' as [? Ef']. apply String.eqb_eq in Ef'. tauto. }
      destruct Hdin as [Hdin <-].
      destruct (PW_defs _ _ W d Hdin) as [Hmd Hmr].
      destruct (check_equality_sound ts fs W _ _ _ _ HT Hmr Tb I H1) as [Heq [_ [I1 [S1 [G1 Hi1]]]]].
      destruct (HdefF _ d Ef) as [d' [Hfd [Hcx Hrt]]].
      assert (K : tg_args G args' (compile_ctx (fdctx d)) = true).
      { apply (check_args_ptg args H eager (fdctx d) st1 ctx args' st' G Hm Hc Hmd (tables_same _ _ _ _ Tb S1) I1 H2 GF R CI).
        intros X. apply Hcm. simpl. rewrite any_calls_main_eq. rewrite X. apply orb_true_r. }
      rewrite tg_call, Hfd, Hcx, Hrt, K, <- Heq. simpl.
      assert (Hmain : negb (String.eqb (fdname d) "main") || calls_main_prog q = true).
      { destruct (String.eqb (fdname d) "main") eqn:Em; [|reflexivity]. simpl. apply Hcm. simpl. rewrite Em. reflexivity. }
      rewrite Hmain. simpl. rewrite (HtyF _ HT HiT). rewrite (proj2 (cty_eqb_eq _ _) eq_refl). auto.
    - (* FCtor *)
      apply andb_true_iff in Hm. destruct Hm as [Nx Hm]. rewrite terms_names_ok_eq in Hm.
      apply run_ctor in Hk. destruct Hk as (st0 & n & targs & types & ty & xs & args' & st1 & H0 & -> & Ec & El & H1 & H2 & ->).
      destruct (eager_pstep ts fs W _ _ _ _ HT Tb I H0) as [I0 [S0 G0]].
      pose proof (tables_same _ _ _ _ Tb S0) as Tb0.
      destruct (ty_names_ok_decl_inv _ _ HT) as [Nn Nt].
      destruct (ctor_instance_sound ts fs W _ _ _ _ I0 Nx Nt Ec) as [td [s [Htd [Hp [Hs [Hsn [Hok ->]]]]]]].
      destruct (lookup_ty_for_xtor_sound ts fs W _ _ _ _ _ _ I0 Nx Nt El) as [td2 [Htd2 [Hp2 [-> [-> [Hx2 _]]]]]].
      assert (td2 = td).
      { eapply (owner_of_names ts fs W); [exact Htd2|exact Htd|congruence|exact Hx2|]. rewrite <- Hsn. apply in_map. assumption. }
      subst td2.
      destruct (PW_sigs _ _ W td s Htd Hs) as [Nsg _].
      assert (Nty : ctx_names_ok (inst_ctx (td_params td) targs (xs_args s)) = true) by (apply inst_ctx_names_ok; assumption).
      destruct (check_args_psound ts fs W args (all_psound args) eager _ _ _ _ _ _ _ Hm Hc Nsg Nt Tb0 I0 H1) as [_ [I1 [S1 [G1 _]]]].
      assert (S01 : same_templates st st1) by frame.
      pose proof (decl_ty_names_ok ts fs W td targs Htd Nt) as Nty2.
      destruct (check_equality_sound ts fs W _ _ _ _ HT Nty2 (tables_same _ _ _ _ Tb S01) I1 H2) as [Heq [_ [I2 [S2 [G2 _]]]]].
      inversion Heq; subst n.
      destruct (HdataF td targs Htd Hp Hok HiT) as [cs [Hfd HR]].
      destruct (find_xtor_sig compile_ctor (Rdata td targs) (fun s0 c0 H0 => f_equal new_id (proj1 H0)) x s _ cs HR) as [c [Hfc [En [Ea Ei]]]].
      { rewrite <- Hsn. exact (find_xsig_of_in ts fs W td s Htd Hs). }
      assert (K : tg_args G args' (compile_ctx (inst_ctx (td_params td) targs (xs_args s))) = true).
      { apply (check_args_ptg args H eager _ st0 ctx args' st1 G Hm Hc Nty Tb0 I0 H1); [frame|exact R|exact CI|].
        intros X. apply Hcm. simpl. rewrite any_calls_main_eq. exact X. }
      rewrite tg_ctor. unfold tyo. cbn [fterm_type option_map]. rewrite compile_ty_decl, Hfd.
      unfold find_cxtor. cbn [ctxtors]. rewrite Hfc. unfold compile_ctor. cbn [cxargs]. rewrite Ea, K. auto.
    - (* FDtor *)
      apply andb_true_iff in Hm. destruct Hm as [Hm Hm3]. apply andb_true_iff in Hm. destruct Hm as [Hm Hm2].
      apply andb_true_iff in Hm. destruct Hm as [Nx Nt].
      rewrite terms_names_ok_eq in Hm3.
      apply run_dtor in Hk. destruct Hk as (ty & xs & st1 & s' & st2 & types & ret & args' & st3 & H1 & H2 & Ed & H3 & H4 & ->).
      destruct (lookup_or_template_psound ts fs W _ _ _ _ _ _ _ Tb I Nx Nt H1) as [td [Htd [Hp [-> [-> [Hx [Hok [I1 [S1 [G1 Hi1]]]]]]]]]].
      pose proof (decl_ty_names_ok ts fs W td targs Htd Nt) as Nty.
      pose proof (tables_same _ _ _ _ Tb S1) as Tb1.
      destruct (step_frame _ _ _ _ _ _ _ Hm2 Hc Nty Tb1 I1 H2) as [I2 [S2 [G2 Tb2]]].
      destruct (dtor_instance_sound ts fs W _ _ _ _ _ I2 Nx Nt Ed) as [td' [s [r0 [Htd' [Hp' [Hs [Hsn [_ [Hret [-> ->]]]]]]]]]].
      assert (td' = td).
      { eapply (owner_of_names ts fs W); [exact Htd'|exact Htd|congruence| |exact Hx]. rewrite <- Hsn. apply in_map. assumption. }
      subst td'.
      destruct (PW_sigs _ _ W td s Htd Hs) as [Nsg Nret]. rewrite Hret in Nret. simpl in Nret.
      assert (Nsg' : ctx_names_ok (inst_ctx (td_params td) targs (xs_args s)) = true) by (apply inst_ctx_names_ok; assumption).
      destruct (check_args_psound ts fs W args (all_psound args) eager _ _ _ _ _ _ _ Hm3 Hc Nsg Nt Tb2 I2 H3) as [_ [I3 [S3 [G3 _]]]].
      assert (Nr : ty_names_ok (inst (td_params td) targs r0) = true) by (apply inst_names_ok; assumption).
      destruct (check_equality_sound ts fs W _ _ _ _ HT Nr (tables_same _ _ _ _ Tb2 S3) I3 H4) as [Heq [_ [I4 [S4 [G4 _]]]]].
      assert (HiS : has_inst_p stF (FDecl (td_name td) targs)) by (eapply has_inst_grows; [|exact Hi1]; frame).
      destruct (IHt eager st1 ctx _ s' st2 G Hm2 Hc Nty Tb1 I1 H2 ltac:(frame) HiS R CI ltac:(cm Hcm)) as [K1 [K2 _]].
      destruct (HcodataF td targs Htd Hp Hok HiS) as [ds [Hfd HR]].
      destruct (find_xtor_sig compile_dtor (Rcodata td targs) (fun s0 c0 H0 => f_equal new_id (proj1 H0)) x s _ ds HR) as [c [Hfc [En [Ea [[r1 [Hr1 Er]] [Ei Hic]]]]]].
      { rewrite <- Hsn. exact (find_xsig_of_in ts fs W td s Htd Hs). }
      rewrite Hret in Hr1. inversion Hr1; subst r1. clear Hr1.
      assert (K : tg_args G args' (compile_ctx (inst_ctx (td_params td) targs (xs_args s))) = true).
      { apply (check_args_ptg args H eager _ st2 ctx args' st3 G Hm3 Hc Nsg' Tb2 I2 H3); [frame|exact R|exact CI|].
        intros X. apply Hcm. simpl. rewrite any_calls_main_eq. rewrite X. apply orb_true_r. }
      rewrite tg_dtor, K1. unfold tyo at 1. rewrite K2. cbn [option_map]. rewrite compile_ty_decl, Hfd.
      unfold find_cxtor. cbn [ctxtors]. rewrite Hfc. unfold compile_dtor. cbn [cxargs]. rewrite split_last_snoc, Ea, K.
      cbn [cbchi cbty]. rewrite Er, <- Heq. rewrite (has_ty_of (FDtor s' x targs args' (Some T)) T eq_refl). auto.
    - (* FCase *)
      apply andb_true_iff in Hm. destruct Hm as [Hm Hm3]. apply andb_true_iff in Hm. destruct Hm as [Nt Hm2].
      rewrite clauses_names_ok_eq in Hm3.
      apply run_case in Hk.
      destruct Hk as (p0 & x0 & ns0 & c0 & b0 & clr & ty & xs & st1 & s' & st2 & cls' & -> & H1 & H2 & H3 & ->).
      assert (Nx : name_ok x0 = true).
      { simpl in Hm3. apply andb_true_iff in Hm3. destruct Hm3 as [Hm3 _]. unfold clause_names_ok in Hm3.
        apply andb_true_iff in Hm3. tauto. }
      destruct (lookup_or_template_psound ts fs W _ _ _ _ _ _ _ Tb I Nx Nt H1) as [td [Htd [Hp [-> [-> [Hx [Hok [I1 [S1 [G1 Hi1]]]]]]]]]].
      pose proof (decl_ty_names_ok ts fs W td targs Htd Nt) as Nty.
      pose proof (tables_same _ _ _ _ Tb S1) as Tb1.
      destruct (step_frame _ _ _ _ _ _ _ Hm2 Hc Nty Tb1 I1 H2) as [I2 [S2 [G2 Tb2]]].
      destruct (clauses_psound_result ts fs W eager true T td targs _ st2 ctx cls' st'
                  (all_psound_cls _) Hm3 Hc Tb2 I2 Htd Hok Hp (fun _ => HT) H3)
        as [_ [_ [I3 [S3 [G3 _]]]]].
      assert (HiS : has_inst_p stF (FDecl (td_name td) targs)) by (eapply has_inst_grows; [|exact Hi1]; frame).
      destruct (IHt eager st1 ctx _ s' st2 G Hm2 Hc Nty Tb1 I1 H2 ltac:(frame) HiS R CI ltac:(cm Hcm)) as [K1 [K2 _]].
      destruct (HdataF td targs Htd Hp Hok HiS) as [cs [Hfd HR]].
      assert (K : tg_clauses G (Some T) cls' (map compile_ctor cs) = true).
      { apply (check_clauses_case_ptg T td targs (td_xtors td) (prep_clauses (check_term_gen eager) (FClause p0 x0 ns0 c0 b0 :: clr))
                 st2 ctx cls' [] st' G cs
                 (prep_clauses_psound ts fs eager _ (all_psound_cls _) Hm3) (prep_clauses_ptg eager _ H Hm3)
                 Hc Tb2 I2 Htd Hok (fun s Hs => Hs) Hp HT HiT H3 GF R CI); [|exact HR].
        intros X. apply Hcm. simpl. rewrite any_cls_cm_eq. rewrite X. apply orb_true_r. }
      rewrite tg_case, K1. unfold tyo. rewrite K2. cbn [option_map]. rewrite compile_ty_decl, Hfd. cbn [ctxtors]. rewrite K. auto.
    - (* FNew *)
      rewrite clauses_names_ok_eq in Hm.
      apply run_new in Hk. destruct Hk as (st0 & n & targs & targs' & dtors & cls' & H0 & -> & Eg & H1 & ->).
      destruct (eager_pstep ts fs W _ _ _ _ HT Tb I H0) as [I0 [S0 G0]].
      pose proof (tables_same _ _ _ _ Tb S0) as Tb0.
      destruct (ty_names_ok_decl_inv _ _ HT) as [Nn Nt].
      destruct (pi_types _ _ I0 _ _ _ _ Eg) as [td [Htd [Ek [Hp [-> Hok]]]]].
      destruct (instance_name_inj _ _ _ _ (name_ok_no_delim _ Nn) (name_ok_no_delim _ (PW_tnames _ _ W td Htd))
                  Nt (targs_ok_names ts fs W _ _ Hok) Ek) as [-> <-].
      destruct (HcodataF td targs Htd Hp Hok HiT) as [ds [Hfd HR]].
      assert (K : tg_coclauses G cls' (map compile_dtor ds) = true).
      { apply (check_clauses_new_ptg (FDecl (td_name td) targs) td targs (td_xtors td) (prep_clauses (check_term_gen eager) cls)
                 st0 ctx cls' [] st' G ds
                 (prep_clauses_psound ts fs eager _ (all_psound_cls _) Hm) (prep_clauses_ptg eager _ H Hm)
                 Hc Tb0 I0 Htd Hok (fun s Hs => Hs) Hp H1 GF R CI); [|exact HR].
        intros X. apply Hcm. simpl. rewrite any_cls_cm_eq. exact X. }
      rewrite tg_new. unfold tyo. cbn [fterm_type option_map]. rewrite compile_ty_decl, Hfd. cbn [ctxtors]. rewrite K. auto.
    - (* FLabel *)
      apply run_label in Hk. destruct Hk as (u' & H1 & ->).
      assert (Hc' : ctx_names_ok (ctx ++ [mkfb l FCns T]) = true).
      { apply ctx_names_ok_app; [assumption|]. unfold ctx_names_ok. simpl. rewrite HT. reflexivity. }
      destruct (IHt eager st _ T u' st' _ Hm Hc' HT Tb I H1 GF HiT (ctx_rel_snoc _ _ (mkfb l FCns T) R) (ctx_inst_snoc _ (mkfb l FCns T) CI HiT) ltac:(cm Hcm)) as [K1 [K2 _]].
      rewrite tg_label. unfold compile_binding in K1. simpl in K1. rewrite K1, (HtyF _ HT HiT), (has_ty_of _ _ K2). auto.
    - (* FGoto *)
      apply run_goto in Hk. destruct Hk as (cont & u' & Hl & H1 & ->).
      destruct (lookup_covar_last _ _ _ Hl) as [b0 [Hb0 [Hb0c Hbt]]].
      destruct (lookup_covar_E _ _ _ Hl) as [_ [b1 [Hb1 Hbt1]]].
      assert (Hmf : ty_names_ok cont = true) by (subst cont; rewrite <- Hbt1; apply (ctx_names_ok_in ctx); assumption).
      assert (HiC : has_inst_p stF cont) by (rewrite <- Hbt1; apply CI; exact Hb1).
      destruct (IHt eager st ctx cont u' st' G Hm Hc Hmf Tb I H1 GF HiC R CI ltac:(cm Hcm)) as [K1 [K2 _]].
      rewrite tg_goto, K1, K2. pose proof (var_ok_rel _ _ _ _ R Hb0) as Hv. rewrite Hb0c, Hbt in Hv. simpl in Hv. rewrite Hv.
      simpl. rewrite (HtyF _ Hmf HiC). auto.
    - (* FExit *)
      apply run_exit in Hk. destruct Hk as (a' & H1 & ->).
      destruct (IHt eager st ctx FI64 a' st' G Hm Hc eq_refl Tb I H1 GF Logic.I R CI ltac:(cm Hcm)) as [K1 [K2 _]].
      rewrite tg_exit, K1, (has_ty_i64 _ K2). simpl. rewrite (HtyF _ HT HiT). auto.
    - (* FParen *)
      apply run_paren in Hk. destruct Hk as (u' & H1 & ->).
      destruct (IHt eager st ctx T u' st' G Hm Hc HT Tb I H1 GF HiT R CI ltac:(cm Hcm)) as [K1 [K2 K3]].
      rewrite tg_paren. simpl. auto.
  Qed.
End Tg.
