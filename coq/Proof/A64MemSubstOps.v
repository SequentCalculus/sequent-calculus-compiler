(* The memory part of a substitution at the AArch64 level: the code `code_weakening_contraction` emits for the transposed
   map tm (an erase_block or a share_block_n per non-ext binding, in the order of tm) refines, through abs_heap, the operation
   list the instrumented machine of Sem/AxHeap.v performs for the substitution (`rc_op` per binding, the same order).
   Composition of a64_erase_block_ok / a64_share_block_ok (Proof/A64MemOps.v) over the list; the header bounds `hb` keep the
   64-bit counts from wrapping (and, AArch64, every tested header a 64-bit value). *)
From Coq Require Import List ZArith NArith String Bool Lia FMapPositive.
From SCC Require Import Base.Sexp Lang.AxSyn Sem.AxSem Sem.AxHeap Model.Backend Model.A64 Sem.A64Sem Generated.Constants
     Proof.A64State Proof.A64ImmHw Proof.A64Imm Proof.A64Sel Proof.A64Exec Proof.A64MemSubst Proof.A64Mem Proof.A64MemOps Proof.A64MemTop.
From SCC Require Model.Heap Proof.X86Mem Proof.X86MemFrame Proof.X86MemStore.
Import Sem.AxHeap.
Import ListNotations.
Open Scope list_scope.
Open Scope Z_scope.

(* actions: (temporary holding the pointer, pointer, new number of copies) *)
Definition act := (atemp * Z * nat)%type.
Definition act_code (a : act) (lc : N) : list acode * N :=
  match snd a with
  | O => a_erase_block (fst (fst a)) lc
  | S O => ([], lc)
  | S (S m) => a_share_block_n (fst (fst a)) (N.of_nat (S m)) lc
  end.
Fixpoint acts_code (acts : list act) (lc : N) : list acode * N :=
  match acts with
  | [] => ([], lc)
  | a :: r => let '(c1, lc1) := act_code a lc in let '(c2, lc2) := acts_code r lc1 in (c1 ++ c2, lc2)
  end.
Definition act_op (a : act) : list Heap.op :=
  match snd a with
  | O => [Heap.OErase (snd (fst a))]
  | S O => []
  | S (S m) => [Heap.OShare (snd (fst a)) (Z.of_nat (S m))]
  end.
Definition n_erase (acts : list act) : Z := Z.of_nat (List.length (filter (fun a : act => match snd a with O => true | _ => false end) acts)).
Definition n_share (acts : list act) : Z := fold_right (fun (a : act) z => Z.of_nat (snd a) + z) 0 acts.
Lemma n_share_nonneg acts : 0 <= n_share acts.
Proof. unfold n_share. induction acts as [|a r IH]; cbn [fold_right]; lia. Qed.
Lemma n_erase_nonneg acts : 0 <= n_erase acts.
Proof. unfold n_erase. lia. Qed.

Definition act_erases (a : act) : Z := match snd a with O => 1 | _ => 0 end.
Lemma act_erases_nonneg a : 0 <= act_erases a.
Proof. unfold act_erases. destruct (snd a); lia. Qed.
Lemma n_erase_cons a r : n_erase (a :: r) = act_erases a + n_erase r.
Proof. unfold n_erase, act_erases. cbn [filter]. destruct (snd a); cbn [List.length]; lia. Qed.

(* headers of all blocks and the free pointer lie lo above the smallest and hi below the largest
   64-bit integer *)
Definition hb (lo hi : Z) (s : astate) (f : Z) : Prop :=
  (forall x, is_blk x -> min_int + lo <= hword s x /\ hword s x + hi <= max_int) /\
  (min_int + lo <= f /\ f + hi <= max_int).

Lemma sbtf_lget s s' sp k : sbtf s s' -> lget s' sp (tpos k) = lget s sp (tpos k).
Proof.
  intros (R & St & _). destruct (tpos_not_reserved k) as (_ & NF & NT & NT2 & _).
  destruct (tpos k) as [r|q] eqn:E; cbn [lget].
  - apply R; congruence.
  - unfold sget. now rewrite St.
Qed.
Lemma sbtf_refl a : sbtf a a.
Proof. repeat split; auto. Qed.

Lemma st_eqB_hword F s a x : st_eqB (abs_heap F s) a -> is_blk x -> hword s x = Heap.hdr (Heap.m a x).
Proof. intros (_ & _ & _ & EM) Hx. rewrite <- (EM x Hx). reflexivity. Qed.
Lemma hrun_app ops1 ops2 a : hrun (ops1 ++ ops2) a = hrun ops2 (hrun ops1 a).
Proof. unfold hrun. apply fold_left_app. Qed.
Lemma blk_small p : is_blk p -> 0 < p /\ p < 2 ^ 40.
Proof. intros (k & Hk & -> & H). unfb. lia. Qed.

(* the operations of a list of actions respect the block-wise equality of abstract states *)
Lemma acts_st_eqB : forall acts a b,
  st_eqB a b -> Forall (fun x : act => snd (fst x) = 0 \/ is_blk (snd (fst x))) acts ->
  st_eqB (hrun (flat_map act_op acts) a) (hrun (flat_map act_op acts) b).
Proof.
  induction acts as [|[[t p] n] acts IH]; intros a b E HF; cbn [flat_map]; [exact E|].
  inversion HF as [|? ? Hp HF']; subst. cbn [fst snd] in Hp. rewrite !hrun_app. apply IH; auto.
  unfold act_op; cbn [fst snd]. destruct n as [|[|n]]; cbn [hrun fold_left Heap.step]; auto.
  - now apply X86Mem.erase_st_eqB.
  - now apply X86MemFrame.share_st_eqB.
Qed.

Section WC.
Variable im : image.

(* one action: a state refining its operation, with the header bounds that remain for lo more erasures and hi more copies *)
Lemma a64_act_ok F sp k p n lc c1 lc1 pos s f lo hi :
  act_code (tpos k, p, n) lc = (c1, lc1) ->
  code_at im pos c1 -> labels_at im pos c1 -> frame_ok s sp -> rget s FREE = Some f ->
  (k < MAXPOS)%N -> lget s sp (tpos k) = Some p -> p = 0 \/ is_blk p ->
  0 <= lo -> 0 <= hi ->
  hb (act_erases (tpos k, p, n) + lo) (Z.of_nat n + hi) s f ->
  Z.of_nat n + hi <= 2 ^ 31 - 1 -> act_erases (tpos k, p, n) + lo <= 2 ^ 31 - 1 ->
  exists s1 f1, exec_to im pos s (padd pos (List.length c1)) s1 /\
    st_eqB (abs_heap F s1) (hrun (act_op (tpos k, p, n)) (abs_heap F s)) /\
    sbtf s s1 /\ frame_ok s1 sp /\ rget s1 FREE = Some f1 /\
    f1 = Heap.free (hrun (act_op (tpos k, p, n)) (abs_heap F s)) /\
    hb lo hi s1 f1.
Proof.
  intros E1 CA LA FR Hf Hk Hl Hp Hlo Hhi [B1 B2] HS HR.
  assert (Ff : Heap.free (abs_heap F s) = f) by (cbn [abs_heap Heap.free]; unfold reg_or0; now rewrite Hf).
  unfold act_code, act_op, act_erases in *; cbn [fst snd] in *. destruct n as [|[|n]].
  - (* erase *)
    assert (Hw : p <> 0 -> min_int + 1 <= hword s p <= max_int).
    { intros Hp0. destruct Hp as [|Hblk]; [contradiction|]. specialize (B1 _ Hblk). lia. }
    destruct (tpos_not_reserved k) as (NH & NF & _).
    pose proof (a64_erase_block_ok im pos (tpos k) lc s sp p f F) as HE. rewrite E1 in HE. cbn [fst] in HE.
    destruct (HE CA LA FR (tpos_operand_ok k Hk) NF NH Hl Hf Hp Hw) as (s1 & ST1 & EQ1 & SB1 & FR1 & Hf1 & _).
    exists s1, (Heap.free (Heap.erase p (abs_heap F s))). cbn [hrun fold_left Heap.step].
    split; [exact ST1|]. split; [exact EQ1|]. split; [exact SB1|]. split; [exact FR1|]. split; [exact Hf1|]. split; [reflexivity|].
    split.
    + intros x Hx. rewrite (st_eqB_hword F s1 _ x EQ1 Hx).
      specialize (B1 x Hx). change (hword s x) with (Heap.hdr (Heap.m (abs_heap F s) x)) in B1.
      destruct (X86Mem.erase_hdr_cases (abs_heap F s) p x) as [->|[->| ->]]; rewrite ?Ff; lia.
    + destruct (X86Mem.erase_free_cases (abs_heap F s) p) as [->| ->]; [rewrite Ff; lia|].
      (* the new free pointer is the erased block: a 40-bit address *)
      destruct Hp as [->|Hblk]; [unfold min_int, max_int, two63 in *; lia|].
      destruct (blk_small _ Hblk). unfold min_int, max_int, two63 in *. lia.
  - (* one copy: no code *)
    inversion E1 as [[Ec Elc]]. subst c1 lc1. exists s, f. cbn [List.length padd hrun fold_left].
    split; [apply exec_refl|]. split; [apply X86Mem.st_eqB_refl|]. split; [apply sbtf_refl|]. split; [exact FR|]. split; [exact Hf|].
    split; [symmetry; exact Ff|]. split; [|lia]. intros x Hx. specialize (B1 x Hx). lia.
  - (* share *)
    set (m := N.of_nat (S n)) in *.
    assert (Em : Z.of_N m = Z.of_nat (S n)) by (unfold m; lia).
    assert (Hw : p <> 0 -> wrap (hword s p + Z.of_N m) = hword s p + Z.of_N m).
    { intros Hp0. destruct Hp as [|Hblk]; [contradiction|]. specialize (B1 _ Hblk). apply wrap_in64. lia. }
    pose proof (a64_share_block_ok im pos (tpos k) m lc s sp p F) as HE. rewrite E1 in HE. cbn [fst] in HE.
    destruct (HE CA LA FR (tpos_operand_ok k Hk) Hl Hp Hw) as (s1 & ST1 & EQ1 & SB1 & FR1 & _).
    exists s1, f. cbn [hrun fold_left Heap.step]. rewrite <- Em.
    split; [exact ST1|]. split; [exact EQ1|]. split; [apply sbt_sbtf; exact SB1|]. split; [exact FR1|].
    split; [destruct SB1 as (R & _); rewrite R by discriminate; exact Hf|].
    split; [unfold Heap.share; destruct (p =? 0); cbn [Heap.free]; symmetry; exact Ff|].
    split; [|lia].
    intros x Hx. rewrite (st_eqB_hword F s1 _ x EQ1 Hx).
    specialize (B1 x Hx). change (hword s x) with (Heap.hdr (Heap.m (abs_heap F s) x)) in B1.
    unfold Heap.share. destruct (Z.eqb_spec p 0); [lia|]. cbn [Heap.m].
    destruct (Z.eq_dec x p) as [->|Hne]; [rewrite Heap.hdr_set_hdr_same|rewrite Heap.hdr_set_hdr_other by exact Hne]; lia.
Qed.

(* the temporary of an action is a variable temporary that holds the action's pointer, null or a block *)
Definition act_valid (s : astate) (sp : Z) (a : act) : Prop :=
  exists k, fst (fst a) = tpos k /\ (k < MAXPOS)%N /\ lget s sp (tpos k) = Some (snd (fst a)) /\
            (snd (fst a) = 0 \/ is_blk (snd (fst a))).

Theorem a64_acts_ok F sp : forall acts lc cs lc' pos s f,
  acts_code acts lc = (cs, lc') ->
  code_at im pos cs -> labels_at im pos cs -> frame_ok s sp -> rget s FREE = Some f ->
  Forall (act_valid s sp) acts ->
  hb (n_erase acts) (n_share acts) s f -> n_share acts <= 2 ^ 31 - 1 -> n_erase acts <= 2 ^ 31 - 1 ->
  exists s', exec_to im pos s (padd pos (List.length cs)) s' /\
    st_eqB (abs_heap F s') (hrun (flat_map act_op acts) (abs_heap F s)) /\
    sbtf s s' /\ frame_ok s' sp /\
    rget s' FREE = Some (Heap.free (hrun (flat_map act_op acts) (abs_heap F s))).
Proof.
  induction acts as [|[[t p] n] acts IH]; intros lc cs lc' pos s f HC CA LA FR Hf HV HB HS HR.
  - cbn in HC. inversion HC; subst. exists s. cbn [flat_map hrun fold_left List.length padd]. split; [apply exec_refl|]. split; [apply X86Mem.st_eqB_refl|].
    split; [apply sbtf_refl|]. split; [exact FR|]. rewrite Hf. cbn [abs_heap Heap.free]. unfold reg_or0. now rewrite Hf.
  - cbn [acts_code] in HC. destruct (act_code (t, p, n) lc) as [c1 lc1] eqn:E1.
    destruct (acts_code acts lc1) as [c2 lc2] eqn:E2. injection HC as <- ->.
    destruct (code_at_app2 _ _ _ _ CA) as [CA1 CA2]. destruct (labels_at_app2 _ _ _ _ LA) as [LA1 LA2].
    destruct (Forall_inv HV) as (k & Et & Hk & Hl & Hp). apply Forall_inv_tail in HV. rename HV into HV'.
    cbn [fst snd] in Et, Hl, Hp. subst t.
    rewrite n_erase_cons in HB, HR. change (n_share ((tpos k, p, n) :: acts)) with (Z.of_nat n + n_share acts) in HB, HS.
    pose proof (n_share_nonneg acts) as Hsh. pose proof (n_erase_nonneg acts) as Her.
    destruct (a64_act_ok F sp k p n lc c1 lc1 pos s f _ _ E1 CA1 LA1 FR Hf Hk Hl Hp Her Hsh HB HS HR)
      as (s1 & f1 & ST1 & EQ1 & SB1 & FR1 & Hf1 & Ef1 & HB1).
    assert (HV1 : Forall (act_valid s1 sp) acts).
    { eapply Forall_impl; [|exact HV']. intros a (k' & A & B & C & D). exists k'. rewrite (sbtf_lget s s1 sp k' SB1). auto. }
    assert (HPs : Forall (fun x : act => snd (fst x) = 0 \/ is_blk (snd (fst x))) acts).
    { eapply Forall_impl; [|exact HV']. intros a (k' & _ & _ & _ & H). exact H. }
    pose proof (act_erases_nonneg (tpos k, p, n)) as Hae.
    assert (HS1 : n_share acts <= 2 ^ 31 - 1) by (clear - HS; lia).
    assert (HR1 : n_erase acts <= 2 ^ 31 - 1) by (clear - HR Hae; lia).
    destruct (IH lc1 c2 lc' _ s1 f1 E2 CA2 LA2 FR1 Hf1 HV1 HB1 HS1 HR1) as (s2 & ST2 & EQ2 & SB2 & FR2 & Hf2).
    pose proof (acts_st_eqB acts _ _ EQ1 HPs) as EQr.
    exists s2. cbn [flat_map]. rewrite hrun_app. split; [|split; [|split; [|split]]].
    + rewrite app_length, padd_add. eapply exec_to_trans; eauto.
    + eapply X86Mem.st_eqB_trans; [exact EQ2|exact EQr].
    + eapply sbtf_trans; eauto.
    + exact FR2.
    + rewrite Hf2. f_equal. destruct EQr as (_ & E & _). exact E.
Qed.

(* the generator and tm_acts treat producers and consumers alike: two cases, external or not *)
Lemma chi_Ext_dec (c : chi) : c = Ext \/ c <> Ext.
Proof. destruct c; [right|right|left]; congruence. Qed.
Lemma chi_match_obj {A} (c : chi) (x y : A) : c <> Ext -> match c with Prd => y | Cns => y | Ext => x end = y.
Proof. destruct c; congruence. Qed.
Definition tm_acts (ptr : binding -> Z) (context : ctx) (tm : list (binding * list N)) : list act :=
  flat_map (fun bt : binding * list N =>
              match bchi (fst bt) with
              | Ext => []
              | _ => match position_of context (idn (bvar (fst bt))) 0 with
                     | Some q => [(tpos (2 * q + tnum_n Fst), ptr (fst bt), List.length (snd bt))]
                     | None => []
                     end
              end) tm.

Lemma tm_acts_cons ptr context b targets tm :
  tm_acts ptr context ((b, targets) :: tm) =
  (match bchi b with
   | Ext => []
   | _ => match position_of context (idn (bvar b)) 0 with
          | Some q => [(tpos (2 * q + tnum_n Fst), ptr b, List.length targets)]
          | None => []
          end
   end) ++ tm_acts ptr context tm.
Proof. reflexivity. Qed.

Lemma urc_act v context n lc r (p : Z) :
  update_reference_count a64_backend v context n lc = Ok r ->
  exists q, position_of context (idn v) 0 = Some q /\ (2 * q + tnum_n Fst < MAXPOS)%N /\
            r = act_code (tpos (2 * q + tnum_n Fst), p, n) lc.
Proof.
  unfold update_reference_count, variable_temporary. destruct (position_of context (idn v) 0) as [q|]; cbn [rbind]; [|discriminate].
  cbn [b_temporary_from_position a64_backend a64_backend_with].
  destruct (temporary_from_position (2 * q + tnum_n Fst)) as [t|] eqn:Et; cbn [rbind]; [|discriminate].
  apply tfp_tpos in Et as [-> Hk]. intros H. exists q. split; [reflexivity|]. split; [exact Hk|].
  unfold act_code; cbn [fst snd]. destruct n as [|[|n]]; cbn [b_erase b_share_n a64_backend a64_backend_with] in H; inversion H; reflexivity.
Qed.

(* the generator succeeded: its code is that of the actions, and every non-ext binding of tm has a position, and the
   position a temporary *)
Lemma cwc_acts ptr context : forall tm lc cs lc',
  code_weakening_contraction a64_backend tm context lc = Ok (cs, lc') ->
  acts_code (tm_acts ptr context tm) lc = (cs, lc') /\
  forall b targets, In (b, targets) tm -> bchi b <> Ext ->
    exists q, position_of context (idn (bvar b)) 0 = Some q /\ (2 * q + tnum_n Fst < MAXPOS)%N.
Proof.
  induction tm as [|[b targets] tm IH]; intros lc cs lc' H.
  - cbn in H. inversion H. split; [reflexivity|intros ? ? []].
  - cbn [code_weakening_contraction] in H. rewrite tm_acts_cons.
    destruct (chi_Ext_dec (bchi b)) as [Eb|Eb].
    + rewrite Eb in *. destruct (IH _ _ _ H) as [A P]. split; [exact A|].
      intros b' t' [E|Hin] Hne; [injection E as <- <-; contradiction|exact (P b' t' Hin Hne)].
    + rewrite chi_match_obj in H by exact Eb. rewrite chi_match_obj by exact Eb.
      destruct (update_reference_count a64_backend (bvar b) context (List.length targets) lc) as [r|] eqn:EU; cbn [rbind] in H; [|discriminate].
      destruct (urc_act _ _ _ _ _ (ptr b) EU) as (q & Ep & Hq & ->). rewrite Ep. cbn [app acts_code].
      destruct (act_code (tpos (2 * q + tnum_n Fst), ptr b, List.length targets) lc) as [c1 lc1].
      destruct (code_weakening_contraction a64_backend tm context lc1) as [[c2 lc2]|] eqn:E2; cbn [rbind] in H; [|discriminate].
      inversion H; subst. destruct (IH _ _ _ E2) as [A P]. rewrite A. split; [reflexivity|].
      intros b' t' [E|Hin] Hne; [injection E as <- <-; eauto|exact (P b' t' Hin Hne)].
Qed.

Lemma tm_acts_ops ptr context tm :
  (forall b targets, In (b, targets) tm -> bchi b <> Ext -> position_of context (idn (bvar b)) 0 <> None) ->
  flat_map act_op (tm_acts ptr context tm) =
  flat_map (fun bt : binding * list N => rc_op (bchi (fst bt)) (ptr (fst bt)) (List.length (snd bt))) tm.
Proof.
  induction tm as [|[b targets] tm IH]; intros H; [reflexivity|].
  rewrite tm_acts_cons. cbn [flat_map fst snd]. rewrite flat_map_app. unfold act in *.
  rewrite IH; [|intros b0 t0 Hin Hne; apply (H b0 t0); [now right|exact Hne]]. f_equal.
  destruct (chi_Ext_dec (bchi b)) as [Eb|Eb]; [rewrite Eb; reflexivity|].
  rewrite chi_match_obj by exact Eb.
  destruct (position_of context (idn (bvar b)) 0) eqn:Ep; [|exfalso; exact (H b targets (or_introl eq_refl) Eb Ep)].
  cbn [flat_map app]. rewrite app_nil_r. unfold act_op, rc_op; cbn [fst snd].
  destruct (bchi b); [| |congruence]; destruct targets as [|t1 [|t2 ts]]; reflexivity.
Qed.

Lemma in_tm_acts ptr context tm a :
  In a (tm_acts ptr context tm) ->
  exists b targets q, In (b, targets) tm /\ bchi b <> Ext /\ position_of context (idn (bvar b)) 0 = Some q /\
                      a = (tpos (2 * q + tnum_n Fst), ptr b, List.length targets).
Proof.
  unfold tm_acts. intros Ha. apply in_flat_map in Ha as ([b targets] & Hin & Ha). cbn [fst snd] in Ha.
  exists b, targets. destruct (chi_Ext_dec (bchi b)) as [Eb|Eb]; [rewrite Eb in Ha; destruct Ha|].
  rewrite chi_match_obj in Ha by exact Eb.
  destruct (position_of context (idn (bvar b)) 0) as [q|]; [|destruct Ha]. destruct Ha as [<-|[]].
  exists q. split; [exact Hin|]. split; [exact Eb|]. split; reflexivity.
Qed.

(* the theorem in terms of the code generator and the operations of the instrumented machine *)
Theorem a64_weakening_contraction_ok (ptr : binding -> Z) context F sp tm lc cs lc' pos s f :
  code_weakening_contraction a64_backend tm context lc = Ok (cs, lc') ->
  code_at im pos cs -> labels_at im pos cs -> frame_ok s sp -> rget s FREE = Some f ->
  (forall b targets t, In (b, targets) tm -> bchi b <> Ext ->
     variable_temporary a64_backend Fst context (idn (bvar b)) = Ok t ->
     lget s sp t = Some (ptr b) /\ (ptr b = 0 \/ is_blk (ptr b))) ->
  let acts := tm_acts ptr context tm in
  hb (n_erase acts) (n_share acts) s f -> n_share acts <= 2 ^ 31 - 1 -> n_erase acts <= 2 ^ 31 - 1 ->
  let ops := flat_map (fun bt : binding * list N => rc_op (bchi (fst bt)) (ptr (fst bt)) (List.length (snd bt))) tm in
  exists s', exec_to im pos s (padd pos (List.length cs)) s' /\
    st_eqB (abs_heap F s') (hrun ops (abs_heap F s)) /\
    sbtf s s' /\ frame_ok s' sp /\
    rget s' FREE = Some (Heap.free (hrun ops (abs_heap F s))).
Proof.
  intros HC CA LA FR Hf HV acts HB HS HR ops.
  destruct (cwc_acts ptr context tm lc cs lc' HC) as [HA POS]. fold acts in HA.
  assert (Hpos : forall b targets, In (b, targets) tm -> bchi b <> Ext -> position_of context (idn (bvar b)) 0 <> None).
  { intros b targets Hin Hne. destruct (POS b targets Hin Hne) as (q & Ep & _). congruence. }
  assert (HVa : Forall (act_valid s sp) acts).
  { apply Forall_forall. intros a Ha. destruct (in_tm_acts _ _ _ _ Ha) as (b & targets & q & Hin & Hne & Ep & ->). cbn [fst snd].
    destruct (POS b targets Hin Hne) as (q' & Ep' & Hk). rewrite Ep in Ep'. injection Ep' as <-.
    exists (2 * q + tnum_n Fst)%N. split; [reflexivity|]. split; [exact Hk|].
    apply (HV b targets _ Hin Hne). unfold variable_temporary. rewrite Ep. cbn [rbind b_temporary_from_position a64_backend a64_backend_with].
    now apply tpos_tfp. }
  destruct (a64_acts_ok F sp acts lc cs lc' pos s f HA CA LA FR Hf HVa HB HS HR) as (s' & A & B & C & D & E).
  unfold ops. rewrite <- (tm_acts_ops ptr context tm Hpos). fold acts.
  exists s'. split; [exact A|]. split; [exact B|]. split; [exact C|]. split; [exact D|exact E].
Qed.
End WC.

(* the hypotheses are satisfiable: drop x, duplicate y, keep the integer z *)
Definition exs_T := Decl ("T"%string, 0%N).
Definition exs_ctx : ctx := [mkb ("x"%string, 1%N) Prd exs_T; mkb ("y"%string, 2%N) Prd exs_T; mkb ("z"%string, 3%N) Ext I64].
Definition exs_re : list (binding * ident) :=
  [(mkb ("y1"%string, 4%N) Prd exs_T, ("y"%string, 2%N)); (mkb ("y2"%string, 5%N) Prd exs_T, ("y"%string, 2%N));
   (mkb ("z1"%string, 6%N) Ext I64, ("z"%string, 3%N))].
Definition exs_tm := transpose exs_re exs_ctx.
Definition exs_code : list acode := match code_weakening_contraction a64_backend exs_tm exs_ctx 0 with Ok (cs, _) => cs | Err _ => [] end.
Definition exs_sp : Z := STACK_TOP - 4096.
Definition exs_state : astate :=
  rset (rset (rset (rset (rset (init_state []) SP (Some exs_sp)) HEAP (Some HEAP_BASE)) FREE (Some (HEAP_BASE + 192)))
             (X 4) (Some (HEAP_BASE + 64))) (X 6) (Some (HEAP_BASE + 128)).
Definition exs_ptr (b : binding) : Z := match snd (bvar b) with 1%N => HEAP_BASE + 64 | 2%N => HEAP_BASE + 128 | _ => 0 end.
Example a64_substitute_memory_example :
  let ops := flat_map (fun bt : binding * list N => rc_op (bchi (fst bt)) (exs_ptr (fst bt)) (List.length (snd bt))) exs_tm in
  ops = [Heap.OErase (HEAP_BASE + 64); Heap.OShare (HEAP_BASE + 128) 1] /\
  exists lc', code_weakening_contraction a64_backend exs_tm exs_ctx 0 = Ok (exs_code, lc') /\
  exists s', exec_to (mk_image exs_code) 1 exs_state (padd 1 (List.length exs_code)) s' /\
    st_eqB (abs_heap (HEAP_BASE + 192) s') (hrun ops (abs_heap (HEAP_BASE + 192) exs_state)) /\
    rget s' FREE = Some (HEAP_BASE + 64) /\ hword s' (HEAP_BASE + 64) = HEAP_BASE + 192 /\ hword s' (HEAP_BASE + 128) = 1.
Proof.
  intros ops. split; [vm_compute; reflexivity|].
  destruct (code_weakening_contraction a64_backend exs_tm exs_ctx 0) as [[cs lc']|] eqn:E; [|vm_compute in E; discriminate].
  assert (Ecs : exs_code = cs) by (unfold exs_code; rewrite E; reflexivity). exists lc'. rewrite Ecs. split; [reflexivity|].
  destruct (A64MemTop.mk_image_code_labels cs) as [HC HL]; [apply X86MemStore.nodupb_sound; rewrite <- Ecs; vm_compute; reflexivity|].
  assert (Hz : forall x, hword exs_state x = 0) by (intros x; unfold hword, hget, exs_state; rewrite !heap_rset; cbn [heap init_state]; now rewrite PM.gempty).
  assert (Eb1 : is_blk (HEAP_BASE + 64)) by (exists 1; split; [lia|]; split; [reflexivity|]; vm_compute; discriminate).
  assert (Eb2 : is_blk (HEAP_BASE + 128)) by (exists 2; split; [lia|]; split; [reflexivity|]; vm_compute; discriminate).
  destruct (a64_weakening_contraction_ok (mk_image cs) exs_ptr exs_ctx (HEAP_BASE + 192) exs_sp exs_tm 0 cs lc' 1 exs_state (HEAP_BASE + 192) E HC HL)
    as (s' & ST & EQ & _ & _ & Hf).
  - split; [reflexivity|exact sp_ok_4096].
  - reflexivity.
  - intros b targets t Hin Hne Ht. vm_compute in Hin.
    destruct Hin as [Ei|[Ei|[Ei|[]]]]; injection Ei as <- <-; try (exfalso; apply Hne; reflexivity);
      vm_compute in Ht; injection Ht as <-; (split; [vm_compute; reflexivity|right; assumption]).
  - split; [intros x _; rewrite Hz; vm_compute; split; discriminate|vm_compute; split; discriminate].
  - vm_compute; discriminate.
  - vm_compute; discriminate.
  - exists s'. split; [exact ST|]. split; [exact EQ|].
    split; [rewrite Hf; f_equal; vm_compute; reflexivity|].
    split; [rewrite (st_eqB_hword _ _ _ _ EQ Eb1)|rewrite (st_eqB_hword _ _ _ _ EQ Eb2)]; vm_compute; reflexivity.
Qed.
Print Assumptions a64_weakening_contraction_ok.
Print Assumptions a64_substitute_memory_example.
