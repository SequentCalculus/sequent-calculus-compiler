(* C18: the fuel of the parser model (Model/Parser.v) never influences its answer.
   [parse ts] runs p_decls with S |ts| iterations and fuel 8|ts|+16 for the recursive descent.  Here: every parsing
   function returns a strictly shorter token list (p_postfix and the optional lists: not longer); the one-step
   unfoldings of the seven mutually recursive functions; stability under more fuel of the functions outside that
   block.  Stability of the block and the fuel theorem: ParseStable.v.  Holds [shorter] and [nolonger]. *)
From Coq Require Import List ZArith NArith String Ascii Bool Lia.
From SCC Require Import Base.Sexp Lang.SynUtil Lang.FunSyn Model.Printer Model.Parser.
Import ListNotations.
Open Scope string_scope.

Definition shorter {X} (f : list token -> pr X) : Prop :=
  forall ts x r, f ts = Some (x, r) -> List.length r < List.length ts.
Definition nolonger {X} (f : list token -> pr X) : Prop :=
  forall ts x r, f ts = Some (x, r) -> List.length r <= List.length ts.

Lemma expect_len y ts r : expect y ts = Some r -> List.length ts = S (List.length r).
Proof.
  unfold expect. destruct ts as [|[] ts]; try discriminate.
  destruct (sym_eqb y y0); [|discriminate]. intros [= ->]. reflexivity.
Qed.

Ltac inv_obind H :=
  match type of H with
  | obind ?e _ = Some _ =>
      let E := fresh "E" in
      destruct e as [?|] eqn:E; [cbn [obind] in H | discriminate H]
  end.

Lemma comma_loop_len {X} (item : list token -> pr X) close :
  shorter item -> forall m, nolonger (comma_loop item close m) /\
                            forall ts l r, comma_loop item close m ts = Some (l, r) -> List.length r < List.length ts.
Proof.
  intros Hi m.
  assert (A : forall ts l r, comma_loop item close m ts = Some (l, r) -> List.length r < List.length ts).
  { induction m as [|m IH]; intros ts l r H; [discriminate H|].
    cbn [comma_loop] in H.
    destruct (expect close ts) as [r0|] eqn:E0.
    - injection H as <- <-. apply expect_len in E0. lia.
    - inv_obind H. destruct p as [x r1]. apply Hi in E.
      destruct (expect SComma r1) as [r'|] eqn:E1.
      + inv_obind H. destruct p as [l' r'']. injection H as <- <-.
        apply expect_len in E1. apply IH in E2. lia.
      + inv_obind H. injection H as <- <-. apply expect_len in E2. lia. }
  split; [|exact A]. intros ts l r H. apply A in H. lia.
Qed.
Lemma comma_loop_shorter {X} (item : list token -> pr X) close m : shorter item -> shorter (comma_loop item close m).
Proof. intros Hi ts l r H. exact (proj2 (comma_loop_len item close Hi m) ts l r H). Qed.

Lemma p_ty_shorter : forall n, shorter (p_ty n).
Proof.
  induction n as [|n IH]; intros ts x r H; [discriminate H|].
  cbn [p_ty] in H.
  destruct ts as [|t ts]; [discriminate H|].
  destruct t; try discriminate H.
  - destruct ts as [|t' ts'].
    + injection H as <- <-. cbn. lia.
    + destruct t'; try (injection H as <- <-; cbn; lia).
      destruct y; try (injection H as <- <-; cbn; lia).
      inv_obind H. destruct p as [args r']. injection H as <- <-.
      apply (comma_loop_shorter (p_ty n) SRBrack n IH) in E. cbn [List.length] in *. lia.
  - destruct k; try discriminate H. injection H as <- <-. cbn. lia.
Qed.

Lemma p_opttyargs_nolonger n : nolonger (p_opttyargs n).
Proof.
  intros ts x r H. unfold p_opttyargs in H.
  destruct ts as [|t ts]; [injection H as <- <-; lia|].
  destruct t; try (injection H as <- <-; lia).
  destruct y; try (injection H as <- <-; lia).
  apply (comma_loop_shorter (p_ty n) SRBrack n (p_ty_shorter n)) in H. cbn [List.length]. lia.
Qed.
Lemma p_lower_shorter : shorter p_lower.
Proof. intros ts x r H. unfold p_lower in H. destruct ts as [|[] ts]; try discriminate H. injection H as <- <-. cbn. lia. Qed.
Lemma p_upper_shorter : shorter p_upper.
Proof. intros ts x r H. unfold p_upper in H. destruct ts as [|[] ts]; try discriminate H. injection H as <- <-. cbn. lia. Qed.
Lemma p_optnames_nolonger n : nolonger (p_optnames n).
Proof.
  intros ts x r H. unfold p_optnames in H.
  destruct ts as [|t ts]; [injection H as <- <-; lia|].
  destruct t; try (injection H as <- <-; lia).
  destruct y; try (injection H as <- <-; lia).
  apply (comma_loop_shorter p_lower SRPar n p_lower_shorter) in H. cbn [List.length]. lia.
Qed.
Lemma p_opttypectx_nolonger n : nolonger (p_opttypectx n).
Proof.
  intros ts x r H. unfold p_opttypectx in H.
  destruct ts as [|t ts]; [injection H as <- <-; lia|].
  destruct t; try (injection H as <- <-; lia).
  destruct y; try (injection H as <- <-; lia).
  apply (comma_loop_shorter p_upper SRBrack n p_upper_shorter) in H. cbn [List.length]. lia.
Qed.
Lemma p_binding_shorter n : shorter (p_binding n).
Proof.
  intros ts x r H. unfold p_binding in H.
  destruct ts as [|t ts]; [discriminate H|]. destruct t; try discriminate H.
  destruct ts as [|t' ts']; [discriminate H|]. destruct t'; try discriminate H.
  - destruct y; try discriminate H. inv_obind H. destruct p as [t r']. injection H as <- <-.
    apply p_ty_shorter in E. cbn [List.length]. lia.
  - inv_obind H. destruct p as [t r']. injection H as <- <-. apply p_ty_shorter in E. cbn [List.length]. lia.
Qed.
Lemma p_optctx_nolonger n : nolonger (p_optctx n).
Proof.
  intros ts x r H. unfold p_optctx in H.
  destruct ts as [|t ts]; [injection H as <- <-; lia|].
  destruct t; try (injection H as <- <-; lia).
  destruct y; try (injection H as <- <-; lia).
  apply (comma_loop_shorter (p_binding n) SRPar n (p_binding_shorter n)) in H. cbn [List.length]. lia.
Qed.

(* One unfolding of each function:  p_X (S n) = B_X n (p_term n) .. (p_clause n),  where B_X is the body of p_X with
   the seven recursive calls made parameters (computed from the definition, see [Print B_term3]).
   Checked directly, such an equation makes the kernel compare the whole block of seven bodies once for every
   recursive call in it, and the compiled matches repeat a fall-through production for every token shape.  So the
   equations are proved for a copy [q_X] of the functions that is defined through the bodies, and the copy is
   convertible with the original block as a whole, where recursive calls are bound variables. *)
Ltac abstract_calls n t :=
  let t := eval cbn [p_term p_term3 p_block p_term2 p_term1 p_postfix p_clause] in t in
  let t := eval pattern (p_term n), (p_term3 n), (p_block n), (p_term2 n), (p_term1 n), (p_postfix n), (p_clause n) in t in
  match t with ?F _ _ _ _ _ _ _ => exact F end.
Definition B_term (n : nat) := ltac:(abstract_calls n (fun ts => p_term (S n) ts)).
Definition B_term3 (n : nat) := ltac:(abstract_calls n (fun ts => p_term3 (S n) ts)).
Definition B_block (n : nat) := ltac:(abstract_calls n (fun ts => p_block (S n) ts)).
Definition B_term2 (n : nat) := ltac:(abstract_calls n (fun ts => p_term2 (S n) ts)).
Definition B_term1 (n : nat) := ltac:(abstract_calls n (fun ts => p_term1 (S n) ts)).
Definition B_postfix (n : nat) := ltac:(abstract_calls n (fun e b ts => p_postfix (S n) e b ts)).
Definition B_clause (n : nat) := ltac:(abstract_calls n (fun pol ts => p_clause (S n) pol ts)).

Fixpoint q_term (n : nat) (ts : list token) : pr fterm :=
  match n with O => None | S n =>
    B_term n (q_term n) (q_term3 n) (q_block n) (q_term2 n) (q_term1 n) (q_postfix n) (q_clause n) ts end
with q_term3 (n : nat) (ts : list token) : pr fterm :=
  match n with O => None | S n =>
    B_term3 n (q_term n) (q_term3 n) (q_block n) (q_term2 n) (q_term1 n) (q_postfix n) (q_clause n) ts end
with q_block (n : nat) (ts : list token) : pr fterm :=
  match n with O => None | S n =>
    B_block n (q_term n) (q_term3 n) (q_block n) (q_term2 n) (q_term1 n) (q_postfix n) (q_clause n) ts end
with q_term2 (n : nat) (ts : list token) : pr (fterm * bool) :=
  match n with O => None | S n =>
    B_term2 n (q_term n) (q_term3 n) (q_block n) (q_term2 n) (q_term1 n) (q_postfix n) (q_clause n) ts end
with q_term1 (n : nat) (ts : list token) : pr fterm :=
  match n with O => None | S n =>
    B_term1 n (q_term n) (q_term3 n) (q_block n) (q_term2 n) (q_term1 n) (q_postfix n) (q_clause n) ts end
with q_postfix (n : nat) (e : fterm) (is1 : bool) (ts : list token) : pr (fterm * bool) :=
  match n with O => None | S n =>
    B_postfix n (q_term n) (q_term3 n) (q_block n) (q_term2 n) (q_term1 n) (q_postfix n) (q_clause n) e is1 ts end
with q_clause (n : nat) (pol : fpol) (ts : list token) : pr fclause :=
  match n with O => None | S n =>
    B_clause n (q_term n) (q_term3 n) (q_block n) (q_term2 n) (q_term1 n) (q_postfix n) (q_clause n) pol ts end.

Lemma q_is_p :
  q_term = p_term /\ q_term3 = p_term3 /\ q_block = p_block /\ q_term2 = p_term2 /\ q_term1 = p_term1
  /\ q_postfix = p_postfix /\ q_clause = p_clause.
Proof. repeat split. Qed.

Ltac by_copy :=
  destruct q_is_p as (<- & <- & <- & <- & <- & <- & <-); reflexivity.
Lemma p_term_unfold n ts : p_term (S n) ts =
  B_term n (p_term n) (p_term3 n) (p_block n) (p_term2 n) (p_term1 n) (p_postfix n) (p_clause n) ts.
Proof. by_copy. Qed.
Lemma p_term3_unfold n ts : p_term3 (S n) ts =
  B_term3 n (p_term n) (p_term3 n) (p_block n) (p_term2 n) (p_term1 n) (p_postfix n) (p_clause n) ts.
Proof. by_copy. Qed.
Lemma p_block_unfold n ts : p_block (S n) ts =
  B_block n (p_term n) (p_term3 n) (p_block n) (p_term2 n) (p_term1 n) (p_postfix n) (p_clause n) ts.
Proof. by_copy. Qed.
Lemma p_term2_unfold n ts : p_term2 (S n) ts =
  B_term2 n (p_term n) (p_term3 n) (p_block n) (p_term2 n) (p_term1 n) (p_postfix n) (p_clause n) ts.
Proof. by_copy. Qed.
Lemma p_term1_unfold n ts : p_term1 (S n) ts =
  B_term1 n (p_term n) (p_term3 n) (p_block n) (p_term2 n) (p_term1 n) (p_postfix n) (p_clause n) ts.
Proof. by_copy. Qed.
Lemma p_postfix_unfold n e b ts : p_postfix (S n) e b ts =
  B_postfix n (p_term n) (p_term3 n) (p_block n) (p_term2 n) (p_term1 n) (p_postfix n) (p_clause n) e b ts.
Proof. by_copy. Qed.
Lemma p_clause_unfold n pol ts : p_clause (S n) pol ts =
  B_clause n (p_term n) (p_term3 n) (p_block n) (p_term2 n) (p_term1 n) (p_postfix n) (p_clause n) pol ts.
Proof. by_copy. Qed.

(* What a successful call says about the length of the rest, given such facts for the seven functions. *)
Ltac lenfact_with T T3 B T2 T1 P C E :=
  lazymatch type of E with
  | expect _ _ = Some _ => apply expect_len in E
  | p_term _ _ = Some _ => apply T in E
  | p_term3 _ _ = Some _ => apply T3 in E
  | p_block _ _ = Some _ => apply B in E
  | p_term2 _ _ = Some _ => apply T2 in E
  | p_term1 _ _ = Some _ => apply T1 in E
  | p_postfix _ _ _ _ = Some _ => apply P in E
  | p_clause _ _ _ = Some _ => apply C in E
  | comma_loop (p_term _) _ _ _ = Some _ => apply (comma_loop_shorter _ _ _ ltac:(apply T)) in E
  | comma_loop (p_clause _ _) _ _ _ = Some _ => apply (comma_loop_shorter _ _ _ ltac:(apply C)) in E
  | p_ty _ _ = Some _ => apply p_ty_shorter in E
  | p_opttyargs _ _ = Some _ => apply p_opttyargs_nolonger in E
  | p_optnames _ _ = Some _ => apply p_optnames_nolonger in E
  | p_upper _ = Some _ => apply p_upper_shorter in E
  | p_lower _ = Some _ => apply p_lower_shorter in E
  end.

Record terms_shorter (n : nat) : Prop := {
  sh_term : shorter (p_term n);
  sh_term3 : shorter (p_term3 n);
  sh_block : shorter (p_block n);
  sh_term2 : shorter (p_term2 n);
  sh_term1 : shorter (p_term1 n);
  sh_postfix : forall e b, nolonger (p_postfix n e b);
  sh_clause : forall pol, shorter (p_clause n pol) }.

Section Step.
  Variable n : nat.
  Hypothesis IH : terms_shorter n.

  Ltac lenfact E :=
    lenfact_with (sh_term n IH) (sh_term3 n IH) (sh_block n IH) (sh_term2 n IH) (sh_term1 n IH) (sh_postfix n IH)
      (sh_clause n IH) E.

  (* [len H] proves [length r < length ts] (or [<=]) from [H : body = Some (x, r)], one bind at a time.  The
     compiled match repeats a production that several token shapes fall into once per shape: before each case
     split [share] proves the bound once for every such repeated sub-parser (closed: no pattern variable occurs
     in it) and replaces it by a variable. *)
  Ltac len H :=
    lazymatch type of H with
    | Some _ = Some _ => injection H as <- <-; cbn [List.length] in *; lia
    | None = Some _ => discriminate H
    | obind ?e _ = Some _ =>
        let E := fresh "E" in let p := fresh "p" in
        destruct e as [p|] eqn:E; [|discriminate H]; cbn [obind] in H;
        lazymatch type of p with (_ * _)%type => destruct p | _ => idtac end;
        lenfact E; len H
    | (let (_, _) := ?p in _) = Some _ => destruct p; len H
    | (if ?b then _ else _) = Some _ => destruct b; len H
    | (match ?x with _ => _ end) = Some _ => share H; destruct x; len H
    | ?d = Some _ =>
        first [ is_var d; match goal with A : forall x r, d = Some (x, r) -> _ |- _ => exact (A _ _ H) end
              | lenfact H; cbn [List.length] in *; lia ]
    end
  with share H :=
    repeat match type of H with
      | context [@obind ?X ?Y ?e ?k] =>
          let t := constr:(@obind X Y e k) in
          lazymatch goal with
          | |- ?R (List.length _) (List.length ?ts) =>
              let A := fresh "A" in let H' := fresh "H" in let d := fresh "d" in
              assert (A : forall x r, t = Some (x, r) -> R (List.length r) (List.length ts))
                by (clear H; intros ? ? H'; len H');
              set (d := t) in *; clearbody d
          end
      end.

  Lemma terms_shorter_S : terms_shorter (S n).
  Proof.
    constructor; [| | | | | intros e b | intros pol]; intros ts x r H.
    - rewrite p_term_unfold in H. unfold B_term in H.
      (* every token shape that starts no print statement falls through to p_term3 on the same list *)
      pose proof (sh_term3 n IH ts) as A. set (d := p_term3 n ts) in *. clearbody d. len H.
    - rewrite p_term3_unfold in H. unfold B_term3 in H. len H.
    - rewrite p_block_unfold in H. unfold B_block in H. len H.
    - rewrite p_term2_unfold in H. unfold B_term2 in H. len H.
    - rewrite p_term1_unfold in H. unfold B_term1 in H. len H.
    - rewrite p_postfix_unfold in H. unfold B_postfix in H. len H.
    - rewrite p_clause_unfold in H. unfold B_clause in H. destruct pol; len H.
  Qed.
End Step.

Lemma terms_shorter_all : forall n, terms_shorter n.
Proof.
  induction n as [|n IH]; [|exact (terms_shorter_S n IH)].
  constructor; intros; intros ? ? ? H; discriminate H.
Qed.

Lemma p_term_shorter n : shorter (p_term n). Proof. exact (sh_term n (terms_shorter_all n)). Qed.
Lemma p_term3_shorter n : shorter (p_term3 n). Proof. exact (sh_term3 n (terms_shorter_all n)). Qed.
Lemma p_block_shorter n : shorter (p_block n). Proof. exact (sh_block n (terms_shorter_all n)). Qed.
Lemma p_term2_shorter n : shorter (p_term2 n). Proof. exact (sh_term2 n (terms_shorter_all n)). Qed.
Lemma p_term1_shorter n : shorter (p_term1 n). Proof. exact (sh_term1 n (terms_shorter_all n)). Qed.
Lemma p_postfix_nolonger n e b : nolonger (p_postfix n e b). Proof. exact (sh_postfix n (terms_shorter_all n) e b). Qed.
Lemma p_clause_shorter n pol : shorter (p_clause n pol). Proof. exact (sh_clause n (terms_shorter_all n) pol). Qed.

Lemma comma_loop_stable {X} (i1 i2 : list token -> pr X) close :
  shorter i2 ->
  forall m1 m2 ts, (forall ts', List.length ts' <= List.length ts -> i1 ts' = i2 ts') ->
    List.length ts < m1 -> List.length ts < m2 ->
    comma_loop i1 close m1 ts = comma_loop i2 close m2 ts.
Proof.
  intros Hs. induction m1 as [|m1 IH]; intros m2 ts Hi H1 H2; [lia|].
  destruct m2 as [|m2]; [lia|].
  cbn [comma_loop].
  destruct (expect close ts) as [r0|]; [reflexivity|].
  rewrite (Hi ts) by lia.
  destruct (i2 ts) as [[x r]|] eqn:E; cbn [obind]; [|reflexivity].
  apply Hs in E.
  destruct (expect SComma r) as [r'|] eqn:E1; [|reflexivity].
  apply expect_len in E1.
  rewrite (IH m2 r'); [reflexivity| |lia|lia].
  intros ts' Hl. apply Hi. lia.
Qed.

Lemma p_ty_stable : forall L ts, List.length ts <= L -> forall n m, List.length ts < n -> List.length ts < m -> p_ty n ts = p_ty m ts.
Proof.
  induction L as [|L IH]; intros ts HL n m Hn Hm.
  - destruct ts; [|cbn in HL; lia]. destruct n, m; try lia. reflexivity.
  - destruct n as [|n]; [lia|]. destruct m as [|m]; [lia|].
    cbn [p_ty].
    destruct ts as [|t ts]; [reflexivity|].
    destruct t; try reflexivity.
    destruct ts as [|t' ts']; [reflexivity|].
    destruct t'; try reflexivity. destruct y; try reflexivity.
    cbn [List.length] in *.
    rewrite (comma_loop_stable (p_ty n) (p_ty m) SRBrack (p_ty_shorter m) n m ts'); [reflexivity| |lia|lia].
    intros ts'' Hl. apply IH; lia.
Qed.
Lemma p_opttyargs_stable n m ts : List.length ts < n -> List.length ts < m -> p_opttyargs n ts = p_opttyargs m ts.
Proof.
  intros Hn Hm. unfold p_opttyargs.
  destruct ts as [|t ts]; [reflexivity|]. destruct t; try reflexivity. destruct y; try reflexivity.
  cbn [List.length] in *.
  apply comma_loop_stable; [apply p_ty_shorter| |lia|lia].
  intros ts' Hl. apply (p_ty_stable (List.length ts')); lia.
Qed.
Lemma p_optnames_stable n m ts : List.length ts < n -> List.length ts < m -> p_optnames n ts = p_optnames m ts.
Proof.
  intros Hn Hm. unfold p_optnames.
  destruct ts as [|t ts]; [reflexivity|]. destruct t; try reflexivity. destruct y; try reflexivity.
  cbn [List.length] in *.
  apply comma_loop_stable; [apply p_lower_shorter|reflexivity|lia|lia].
Qed.
Lemma p_opttypectx_stable n m ts : List.length ts < n -> List.length ts < m -> p_opttypectx n ts = p_opttypectx m ts.
Proof.
  intros Hn Hm. unfold p_opttypectx.
  destruct ts as [|t ts]; [reflexivity|]. destruct t; try reflexivity. destruct y; try reflexivity.
  cbn [List.length] in *.
  apply comma_loop_stable; [apply p_upper_shorter|reflexivity|lia|lia].
Qed.
Lemma p_binding_stable n m ts : List.length ts < n -> List.length ts < m -> p_binding n ts = p_binding m ts.
Proof.
  intros Hn Hm. unfold p_binding.
  destruct ts as [|t ts]; [reflexivity|]. destruct t; try reflexivity.
  destruct ts as [|t' ts']; [reflexivity|]. destruct t'; try reflexivity.
  - destruct y; try reflexivity. cbn [List.length] in *. rewrite (p_ty_stable (List.length ts') ts' (le_n _) n m) by lia. reflexivity.
  - cbn [List.length] in *. rewrite (p_ty_stable (List.length ts') ts' (le_n _) n m) by lia. reflexivity.
Qed.
Lemma p_optctx_stable n m ts : List.length ts < n -> List.length ts < m -> p_optctx n ts = p_optctx m ts.
Proof.
  intros Hn Hm. unfold p_optctx.
  destruct ts as [|t ts]; [reflexivity|]. destruct t; try reflexivity. destruct y; try reflexivity.
  cbn [List.length] in *.
  apply comma_loop_stable; [apply p_binding_shorter| |lia|lia].
  intros ts' Hl. apply p_binding_stable; lia.
Qed.
