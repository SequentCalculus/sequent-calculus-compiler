(* C08, forward simulation for HEAP statements: the code of `r_store` (Let, Create) under `hrel`, for objects of ANY
   number of fields (chains of blocks).  The hypotheses of the RISC-V refinement theorem `rv_store_chain`
   (Proof/RVMemStoreChain.v) come from the allocator invariant through the SHARED bridge (Proof/X86HBridge.v
   `alloc_object_bridge`, Proof/X86HeapCongr.v `heq_alloc_object`); the representations of untouched values survive by the
   shared frame lemma `HRep.xrep_frame`; the allocator registers afterwards from `alloc_object_invA` + `acq_ok_of_inv`. *)
From Coq Require Import List ZArith NArith String Bool Lia FMapPositive Permutation.
From SCC Require Import Base.Sexp Lang.AxSyn Sem.AxSem Sem.AxHeap Model.ParMoves Model.Backend Model.RV Sem.RVSem Sem.RVWf
     Generated.Constants Proof.RVSel Proof.SubstGraph Proof.SubstBackends Proof.RVSubst Proof.RVSimAddr Proof.RVSimRel
     Proof.RVHeapAbs Proof.RVHDefs Proof.RVHMem Proof.RVHBridge Proof.HRep Proof.RVMemStoreChain Proof.RVKSimRel.
From SCC Require Model.Heap Proof.HeapMore Proof.HeapTrace Proof.HeapRep Proof.HeapRepAlloc Proof.HeapBridge
     Proof.X86Mem Proof.X86MemFrame Proof.X86MemStore Proof.X86MemStoreChain Proof.X86HeapDefs Proof.X86HeapAcq Proof.X86HeapCongr
     Proof.X86HBridge Proof.X86HFrame Proof.X86HSimStore.
Import ListNotations.
Open Scope Z_scope.
Open Scope list_scope.

Notation kept := (HRep.kept).
Notation alloc_object_bridge := X86HBridge.alloc_object_bridge.
Notation heq_alloc_object := X86HeapCongr.heq_alloc_object.
Notation nlinks_bound := X86HFrame.nlinks_bound.
Notation waddrs_length := X86HeapDefs.waddrs_length.
Notation nth_error_skipn_add := X86Mem.nth_error_skipn_add.

Notation nlinks_upper := X86HSimStore.nlinks_upper.
Lemma reach_zero_false (mm : Heap.mem) b : ~ reach mm [0] b.
Proof.
  intros Hb. remember [0] as src eqn:Es. induction Hb as [b Hb Hb0|x b Hx IH Hin Hb0]; subst.
  - destruct Hb as [<-|[]]. congruence.
  - auto.
Qed.

Section HStore.
Variable im : image.
Variable types : list tydecl.
Variable CLO : Z -> ident -> list clause -> ctx -> Prop.
Local Notation hrel := (hrel types CLO).
Local Notation hvrep := (hvrep types CLO).
Local Notation xrep := (HRep.xrep types CLO jump_length any_int).
Local Notation xflds := (HRep.xflds types CLO jump_length any_int).
Local Notation xreps := (HRep.xreps types CLO jump_length any_int).

Lemma hrel_vals_app c1 c2 he1 he2 hs s i x v q :
  hrel (c1 ++ c2) (he1 ++ he2) hs s -> List.length he1 = List.length c1 ->
  nth_error he2 i = Some (x, v, q) ->
  exists b, nth_error c2 i = Some b /\ hvrep s (List.length c1 + i) b v q.
Proof.
  intros R L H. destruct (hr_vals R (List.length c1 + i)%nat x v q) as (b & Hb & V).
  { rewrite nth_error_app2 by lia. replace (List.length c1 + i - List.length he1)%nat with i by lia. exact H. }
  exists b. split; [|exact V]. rewrite nth_error_app2 in Hb by lia.
  now replace (List.length c1 + i - List.length c1)%nat with i in Hb by lia.
Qed.

(* the values of the registers of the variables to store, and their pointer slots *)
Lemma store_vals c1 c2 he1 he2 hs s :
  hrel (c1 ++ c2) (he1 ++ he2) hs s -> List.length he1 = List.length c1 ->
  vals_ok s (rval s) (List.length c1) c2.
Proof.
  intros R L i b Hi.
  assert (Li : (i < List.length c2)%nat) by (apply nth_error_Some; congruence).
  pose proof (hrel_length R) as LEN. rewrite !app_length in LEN.
  destruct (nth_error he2 i) as [[[x v] q]|] eqn:He; [|apply nth_error_None in He; lia].
  destruct (hrel_vals_app c1 c2 he1 he2 hs s i x v q R L He) as (b' & Hb' & V).
  assert (b' = b) by congruence. subst b'. unfold rval, reg_or0.
  destruct V as [b z q t A B T Lg|b v q a t1 t2 A K1 K2 T1 T2 L1 L2 X].
  - apply rtpos_rtp in T as [-> _]. cbn [tnum_n] in Lg. rewrite Lg. split; [reflexivity|congruence].
  - apply rtpos_rtp in T1 as [-> _]. apply rtpos_rtp in T2 as [-> _]. cbn [tnum_n] in L1, L2.
    rewrite N.add_0_r in L1. rewrite L1, L2. split; [reflexivity|intros _; reflexivity].
Qed.
Lemma store_fsts c1 c2 he1 he2 hs s :
  hrel (c1 ++ c2) (he1 ++ he2) hs s -> List.length he1 = List.length c1 ->
  (forall en, In en he2 -> chi_of (h_val en) = Ext -> h_ptr en = 0) ->
  xfsts (rval s) (List.length c1) c2 = map store_ptr he2 /\ map store_ptr he2 = ptrs he2.
Proof.
  intros R L EX. pose proof (hrel_length R) as LEN. rewrite !app_length in LEN.
  assert (L2 : List.length he2 = List.length c2) by lia.
  split.
  - apply nth_ext with (d := 0) (d' := 0); [now rewrite X86MemStore.fsts_length, map_length|].
    intros i Hi. rewrite X86MemStore.fsts_length in Hi.
    destruct (nth_error he2 i) as [[[x v] q]|] eqn:He; [|apply nth_error_None in He; lia].
    destruct (hrel_vals_app c1 c2 he1 he2 hs s i x v q R L He) as (b & Hb & V).
    assert (E1 : nth i (xfsts (rval s) (List.length c1) c2) 0 = xfst_slot (rval s) (List.length c1 + i) b).
    { clear -Hb. revert i Hb. generalize (List.length c1). induction c2 as [|b0 c2 IH]; intros E i Hb; [destruct i; discriminate|].
      destruct i as [|i]; cbn [nth_error X86MemStore.fsts nth] in *.
      - inversion Hb; subst. now rewrite Nat.add_0_r.
      - rewrite (IH (S E) i Hb). f_equal. lia. }
    rewrite E1. rewrite (nth_indep _ 0 (store_ptr (x, v, q))) by (rewrite map_length; lia).
    rewrite map_nth. rewrite (nth_error_nth _ _ _ He).
    unfold X86MemStore.fst_slot, store_ptr, rval, reg_or0. cbn [h_val h_ptr fst snd].
    destruct V as [b z q t A B T Lg|b v q a t1 t2 A K1 K2 T1 T2 Lg1 Lg2 X].
    + rewrite A. reflexivity.
    + rewrite K1. destruct (bchi b) eqn:Kb; try congruence; apply rtpos_rtp in T1 as [-> _]; cbn [tnum_n] in Lg1;
        rewrite N.add_0_r in Lg1; now rewrite Lg1.
  - apply map_ext_in. intros en Hen. unfold store_ptr. destruct (chi_of (h_val en)) eqn:K; auto. symmetry. now apply EX.
Qed.

Theorem hsim_store rest args he0 fsE hs s lc c1 lc1 pc hl fl cl :
  hrel (rest ++ args) (he0 ++ fsE) hs s ->
  List.length he0 = List.length rest -> args <> [] ->
  InvA HEAP_BASE hs (roots (he0 ++ fsE)) hl fl cl -> P03 hs ->
  (forall en, In en fsE -> chi_of (h_val en) = Ext -> h_ptr en = 0) ->
  r_store args rest lc = Ok (c1, lc1) -> placed im pc c1 ->
  Heap.frontier hs + 64 <= LIMIT ->
  Heap.frontier (snd (Heap.alloc_object (map store_ptr fsE) hs)) + 64 <= LIMIT ->
  exists s', star im pc s (padd pc (List.length c1)) s' /\
    hrel rest he0 (snd (Heap.alloc_object (map store_ptr fsE) hs)) s' /\
    rget s' (pos_reg Fst (List.length rest)) = Some (fst (Heap.alloc_object (map store_ptr fsE) hs)) /\
    xflds (hword s') (map h_val fsE) (fst (Heap.alloc_object (map store_ptr fsE) hs)).
Proof.
  intros R L0 NE IA K03 EX XS PL HF1 HF.
  pose proof (hrel_length R) as LEN. rewrite !app_length in LEN.
  assert (LE : List.length fsE = List.length args) by lia.
  set (F := Heap.frontier hs).
  set (val := rval s).
  pose proof (store_vals rest args he0 fsE hs s R L0) as VO. fold val in VO.
  destruct (store_fsts rest args he0 fsE hs s R L0 EX) as [EF EP]. fold val in EF.
  set (fields := map store_ptr fsE) in *.
  assert (NEf : fields <> []).
  { unfold fields. destruct fsE; [cbn in LE; destruct args; [congruence|discriminate]|discriminate]. }
  pose proof (hrel_small types CLO _ _ _ _ R) as SM. rewrite app_length in SM.
  assert (HR : Z.of_nat (List.length (roots (he0 ++ fsE))) < 1048576).
  { pose proof (roots_length (he0 ++ fsE)) as RL. rewrite app_length in RL. lia. }
  assert (PM : Permutation (roots (he0 ++ fsE)) (Heap.nz fields ++ roots he0)).
  { rewrite EP. apply roots_split. }
  pose proof (hr_heq R) as HQ. fold F in HQ.
  destruct (alloc_object_bridge fields (abs_heap F s) hs _ _ hl fl cl IA HQ (P03_P3 _ K03) PM NEf HR HF)
    as (PRE & ACQ & ND & UNR).
  destruct (heq_alloc_object (abs_heap F s) hs fields HQ (P03_P3 _ K03) PRE) as (EFST & HQ').
  set (res := Heap.alloc_object fields hs) in *. set (resa := Heap.alloc_object fields (abs_heap F s)) in *.
  destruct (rv_store_chain im pc args rest lc c1 lc1 s F val XS NE PL VO)
    as (s' & ST & EQ & RP & KEEP & WB & FB & (SLOTS & PAD) & HFR).
  { rewrite EF. exact PRE. }
  { rewrite EF, ACQ. exact ND. }
  rewrite EF in EQ, RP, WB, FB, SLOTS, PAD, HFR. fold resa in EQ, RP, WB, FB, SLOTS, PAD.
  rewrite ACQ in WB, HFR. rewrite EFST in RP, WB, FB, SLOTS, PAD. fold res in RP, WB, FB, SLOTS, PAD.
  set (n := List.length args) in *. set (k := Heap.nlinks n) in *.
  (* the abstraction afterwards *)
  assert (EFr : Heap.frontier (snd resa) = Heap.frontier (snd res)) by (destruct HQ' as (_ & _ & X & _); exact X).
  assert (HQ2 : heq (abs_heap (Heap.frontier (snd res)) s') (snd res)).
  { rewrite <- EFr. eapply heq_eqB; [exact EQ|exact HQ']. }
  (* the allocator registers afterwards: the invariant of the new state *)
  destruct (HeapMore.alloc_object_invA HEAP_BASE hs _ _ hl fl cl fields IA PM NEf) as (hl' & fl' & cl' & IA' & _).
  fold res in IA'.
  assert (AOK' : acq_ok (abs_heap (Heap.frontier (snd res)) s')).
  { apply (acq_ok_of_inv _ (snd res) _ hl' fl' cl' IA' HQ2); [|exact HF|].
    - apply P3_alloc_object. apply P03_P3. exact K03.
    - cbn [List.length]. pose proof (roots_length he0). lia. }
  destruct AOK' as (B1 & B2 & _). cbn [abs_heap Heap.heap Heap.free] in B1, B2.
  assert (RH : rget s' HEAP = Some (Heap.heap (snd res))).
  { destruct HQ2 as (E1 & _). cbn [abs_heap Heap.heap] in E1. rewrite <- E1. apply reg_or0_blk. exact B1. }
  assert (RF : rget s' FREE = Some (Heap.free (snd res))).
  { destruct HQ2 as (_ & E2 & _). cbn [abs_heap Heap.free] in E2. rewrite <- E2. apply reg_or0_nz. exact B2. }
  (* the words of everything reachable from the old roots are untouched *)
  assert (KEPT : forall q, q <> 0 -> In q (ptrs (he0 ++ fsE)) -> kept hs (hword s) (hword s') q).
  { intros q Hq0 Hq b Hb i Hi.
    assert (RB : reach (Heap.m hs) (roots (he0 ++ fsE)) b).
    { eapply HeapRep.reach_trans; [|exact Hb]. intros r [<-|[]] _. apply HeapTrace.reach_src; [|exact Hq0].
      unfold roots. apply HeapMore.in_nz. auto. }
    assert (BB : is_blk b) by (eapply reach_is_blk; [exact IA|unfold LIMIT in *; lia|exact RB]).
    apply HFR; [apply not_blk_off; [exact BB|lia]|].
    intros b' Hb'. destruct (UNR b' Hb') as [BB' NR].
    assert (NEb : b <> b') by (intros ->; contradiction).
    destruct (is_blk_apart b b' BB BB' NEb); lia. }
  assert (AG : slots_agree (Heap.m hs) (hword s)) by (eapply heq_slots_agree; exact HQ).
  assert (XFR : forall v q a, In q (ptrs (he0 ++ fsE)) -> xrep (hword s) v q a -> xrep (hword s') v q a).
  { intros v q a Hq X. eapply (HRep.xrep_frame types CLO jump_length any_int hs (hword s) (hword s') AG); [exact X|].
    destruct (Z.eq_dec q 0) as [->|Hq0]; [intros b0 Hb0; exfalso; exact (reach_zero_false _ _ Hb0)|now apply KEPT]. }
  exists s'. split; [exact ST|split; [|split]].
  - (* the positions of `rest` *)
    destruct R as [Hr Fr HQ0 Ids NDc Vals]. split.
    + exact RH.
    + exact RF.
    + exact HQ2.
    + unfold env_ids, ids, erase_env in *. rewrite !map_app in Ids.
      apply app_inv_len in Ids; [tauto|]. rewrite !map_length. exact L0.
    + unfold ids in *. rewrite map_app in NDc. eapply NoDup_app_l; eauto.
    + intros i x v q Hi. assert (Li : (i < List.length he0)%nat) by (apply nth_error_Some; congruence).
      destruct (Vals i x v q) as (b & Hb & V); [rewrite nth_error_app1 by exact Li; exact Hi|].
      rewrite nth_error_app1 in Hb by lia. exists b. split; [exact Hb|].
      destruct V as [b z q t A B T Lg|b v q a t1 t2 A K1 K2 T1 T2 L1 L2 X].
      * eapply hv_int; eauto. apply rtpos_rtp in T as [-> _]. rewrite KEEP; [exact Lg|]. cbn [tnum_n]. lia.
      * pose proof T1 as T1'. pose proof T2 as T2'.
        apply rtpos_rtp in T1' as [-> _]. apply rtpos_rtp in T2' as [-> _].
        eapply (hv_ptr types CLO s' i b v q a); eauto.
        -- rewrite KEEP; [exact L1|]. cbn [tnum_n]. lia.
        -- rewrite KEEP; [exact L2|]. cbn [tnum_n]. lia.
        -- apply XFR; [|exact X]. unfold ptrs. rewrite map_app, in_app_iff. left.
           apply nth_error_In in Hi. apply (in_map h_ptr) in Hi. exact Hi.
  - rewrite pos_reg_rtp. cbn [tnum_n]. rewrite N.add_0_r. exact RP.
  - (* the new object *)
    assert (Lf : List.length (map h_val fsE) = n) by (rewrite map_length; exact LE).
    apply xf_cons; rewrite ?Lf; fold k.
    + destruct fsE; [cbn in LE; destruct args; [congruence|discriminate]|discriminate].
    + exact FB.
    + exact PAD.
    + apply xreps_intro.
      * rewrite skipn_length, Lf, waddrs_length. pose proof (nlinks_bound n). pose proof (nlinks_upper n). unfold k.
        assert (0 < n)%nat by (unfold n; destruct args; [congruence|cbn; lia]). lia.
      * intros i v a Hv Ha. rewrite nth_error_skipn_add in Ha.
        rewrite nth_error_map in Hv. destruct (nth_error fsE i) as [[[x v0] q]|] eqn:He; [|discriminate].
        cbn in Hv. inversion Hv; subst v0. clear Hv.
        destruct (hrel_vals_app rest args he0 fsE hs s i x v q R L0 He) as (b & Hb & V).
        destruct (SLOTS i b Hb) as [S1 S2]. cbv zeta in S1, S2.
        assert (Ea : nth (List.length (waddrs k (hword s') (fst res)) - n + i) (waddrs k (hword s') (fst res)) 0 = a).
        { apply nth_error_nth. exact Ha. }
        rewrite Ea in S1, S2. rewrite S1, S2. unfold X86MemStore.fst_slot, X86MemStore.snd_slot, val, rval, reg_or0.
        assert (Hq : In q (ptrs (he0 ++ fsE))).
        { unfold ptrs. rewrite map_app, in_app_iff. right. apply nth_error_In in He. apply (in_map h_ptr) in He. exact He. }
        destruct V as [b z q t A B T Lg|b v q a0 t1 t2 A K1 K2 T1 T2 L1 L2 X].
        -- rewrite A. apply rtpos_rtp in T as [-> _]. cbn [tnum_n] in Lg. rewrite Lg. constructor. exact I.
        -- apply rtpos_rtp in T1 as [-> _]. apply rtpos_rtp in T2 as [-> _]. cbn [tnum_n] in L1, L2. rewrite N.add_0_r in L1.
           rewrite L1, L2. destruct (bchi b) eqn:Kb; try congruence; now apply XFR.
Qed.

(* appending a variable that owns a pointer: its first register holds the pointer already, the second one has
   just been written *)
Lemma hrel_push_ptr c he hs s s' x b v q a :
  hrel c he hs s -> NoDup (ids (c ++ [b])) -> idn (bvar b) = idn x ->
  bchi b <> Ext -> chi_of v = bchi b -> ty_of v = bty b -> (List.length c < 14)%nat ->
  (forall a0, hword s' a0 = hword s a0) ->
  (forall r, r <> pos_reg Snd (List.length c) -> r <> TEMP -> rget s' r = rget s r) ->
  rget s (pos_reg Fst (List.length c)) = Some q -> rget s' (pos_reg Snd (List.length c)) = Some a ->
  xrep (hword s) v q a ->
  hrel (c ++ [b]) (he ++ [(x, v, q)]) hs s'.
Proof.
  intros R ND EX NB K1 K2 L14 HE K L1 L2 X.
  pose proof (hrel_length R) as LEN. destruct R as [Hr Fr HQ Ids ND0 Vals].
  destruct (pos_reg_special Snd (List.length c)) as (_ & _ & PH & PF).
  assert (RH : rget s' HEAP = rget s HEAP) by (apply K; [congruence|discriminate]).
  assert (RF : rget s' FREE = rget s FREE) by (apply K; [congruence|discriminate]).
  split.
  - now rewrite RH.
  - now rewrite RF.
  - eapply heq_same_words; eauto.
  - unfold env_ids, ids, erase_env in *. rewrite !map_app. f_equal; [exact Ids|]. cbn. now rewrite EX.
  - exact ND.
  - intros i y w p Hn. destruct (Nat.lt_ge_cases i (List.length he)) as [L|L].
    + rewrite nth_error_app1 in Hn by exact L. destruct (Vals i y w p Hn) as (b0 & Hb & V).
      exists b0. split; [rewrite nth_error_app1 by lia; exact Hb|].
      eapply hvrep_keep; [intros a0 _; apply HE| |exact V]. intros n t0 _ T0.
      pose proof (rtpos_regs _ _ _ T0) as (_ & NT & _). apply rtpos_val in T0 as [-> _]. apply K; [|exact NT].
      intros E. apply pos_reg_inj in E as [_ E]. lia.
    + rewrite nth_error_app2 in Hn by exact L. destruct (i - List.length he)%nat as [|k] eqn:Kk; cbn in Hn; [|destruct k; discriminate].
      inversion Hn; subst. exists b. split.
      * rewrite nth_error_app2 by lia. replace (i - List.length c)%nat with O by lia. reflexivity.
      * replace i with (List.length c) by lia.
        apply (hv_ptr types CLO s' (List.length c) b w p a (pos_reg Fst (List.length c)) (pos_reg Snd (List.length c))); auto.
        -- apply rtpos_lt. exact L14.
        -- apply rtpos_lt. exact L14.
        -- rewrite K; [exact L1| |].
           ++ intros E. apply pos_reg_inj in E as [E _]. discriminate.
           ++ apply (pos_reg_special Fst (List.length c)).
        -- apply (HRep.xrep_ext types CLO jump_length any_int (hword s) (hword s')); [intros a0 _; apply HE|exact X].
Qed.

(* r_store of any number of variables (Let, Create): none = the null pointer *)
Theorem hsim_store_any rest args he0 fsE hs s lc c1 lc1 pc hl fl cl :
  hrel (rest ++ args) (he0 ++ fsE) hs s ->
  List.length he0 = List.length rest ->
  InvA HEAP_BASE hs (roots (he0 ++ fsE)) hl fl cl -> P03 hs ->
  (forall en, In en fsE -> chi_of (h_val en) = Ext -> h_ptr en = 0) ->
  r_store args rest lc = Ok (c1, lc1) -> placed im pc c1 ->
  Heap.frontier hs + 64 <= LIMIT ->
  Heap.frontier (snd (Heap.alloc_object (map store_ptr fsE) hs)) + 64 <= LIMIT ->
  exists s', star im pc s (padd pc (List.length c1)) s' /\
    hrel rest he0 (snd (Heap.alloc_object (map store_ptr fsE) hs)) s' /\
    rget s' (pos_reg Fst (List.length rest)) = Some (fst (Heap.alloc_object (map store_ptr fsE) hs)) /\
    xflds (hword s') (map h_val fsE) (fst (Heap.alloc_object (map store_ptr fsE) hs)).
Proof.
  intros R L0 IA K03 EX XS PL HF1 HF2.
  destruct args as [|a0 ar].
  - (* nothing to store: the null pointer *)
    pose proof (hrel_length R) as LEN. rewrite !app_length in LEN. cbn [List.length] in LEN.
    assert (fsE = []) by (destruct fsE; [reflexivity|cbn in LEN; lia]). subst fsE.
    rewrite !app_nil_r in *. cbn [map Heap.alloc_object fst snd].
    unfold r_store in XS. cbn [List.length store_fields] in XS.
    destruct (r_fresh Fst rest) as [t1|] eqn:T1; cbn [rbind] in XS; [|discriminate].
    inversion XS; subst c1 lc1. clear XS.
    apply r_fresh_ok in T1. subst t1. set (t1 := pos_reg Fst (List.length rest)).
    destruct (pos_reg_special Fst (List.length rest)) as (NZ & NT & NH & NF). fold t1 in NZ, NT, NH, NF.
    set (s1 := rset s t1 (rget s ZERO)).
    exists s1. split; [|split; [|split]].
    + apply (run_mvs_star im [MV t1 ZERO] pc s s1 (proj1 PL)). reflexivity.
    + apply (hrel_keep types CLO rest he0 hs s s1 R).
      * intros a. apply hword_rset.
      * apply rget_rset_other. congruence.
      * apply rget_rset_other. congruence.
      * intros i b n t Hi _ Ti. apply rget_rset_other. apply rtpos_val in Ti as [-> _].
        assert (Li : (i < List.length rest)%nat) by (apply nth_error_Some; congruence).
        intros E. apply pos_reg_inj in E as [_ E]. lia.
    + unfold s1. rewrite rget_rset_same by exact NZ. reflexivity.
    + constructor.
  - eapply hsim_store; eauto. discriminate.
Qed.
End HStore.
