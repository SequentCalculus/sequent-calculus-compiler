(* C08, forward simulation for HEAP statements: the code of `r_load` (Switch, Invoke) under `hrel`, for objects of ANY
   number of fields.  The hypotheses of `rv_load_chain` (Proof/RVMemLoadChain.v) from the representation `xflds` of
   the loaded object (`lf_share_ok_words`, shared) and the header bounds of the allocator invariant (`hdr_bounds_r`); the
   loaded registers hold the field words, so the new environment entries are represented (`load_ptrs_words`);
   `heq_load_object` (shared) for the abstraction afterwards. *)
From Coq Require Import List ZArith NArith String Bool Lia FMapPositive Permutation.
From SCC Require Import Base.Sexp Lang.AxSyn Sem.AxSem Sem.AxHeap Model.ParMoves Model.Backend Model.RV Sem.RVSem Sem.RVWf
     Generated.Constants Proof.RVSel Proof.SubstGraph Proof.SubstBackends Proof.RVSubst Proof.RVSimAddr Proof.RVSimRel
     Proof.RVHeapAbs Proof.RVHDefs Proof.RVHMem Proof.RVHBridge Proof.HRep Proof.RVMemStoreChain Proof.RVMemLoadChain
     Proof.RVKSimRel Proof.RVKSimStore.
From SCC Require Model.Heap Model.X86 Proof.HeapMore Proof.HeapTrace Proof.HeapRep Proof.HeapRepAlloc Proof.HeapBridge
     Proof.X86Mem Proof.X86MemFrame Proof.X86MemStoreChain Proof.X86MemLoadChain Proof.X86MemLoadFull
     Proof.X86HeapDefs Proof.X86HeapCongr Proof.X86HBridge Proof.X86HFrame.
Import ListNotations.
Open Scope Z_scope.
Open Scope list_scope.

Notation lf_share_ok_words := X86MemLoadFull.lf_share_ok_words.
Notation lf_addrs_waddrs := X86MemLoadFull.lf_addrs_waddrs.
Notation heq_load_object := X86HeapCongr.heq_load_object.

(* the three slot words of a block of a chain: fields, or the link to the next block of the chain *)
Lemma wblocks_slots w : forall k q b, In b (wblocks k w q) ->
  In (b + 16) (waddrs k w q) /\ In (b + 32) (waddrs k w q) /\
  (In (b + 48) (waddrs k w q) \/ In (w (b + 48)) (wblocks k w q)).
Proof.
  induction k as [|k IH]; intros q b Hb; cbn [X86HeapDefs.wblocks X86HeapDefs.waddrs app In] in *.
  - destruct Hb as [<-|[]]. auto 8.
  - destruct Hb as [<-|Hb].
    + split; [auto|]. split; [auto|]. right. right. destruct k; now left.
    + destruct (IH _ _ Hb) as (A & B & C). split; [auto|]. split; [auto|]. destruct C as [C|C]; [left|right]; auto.
Qed.

(* the loaded variables have registers *)
Lemma r_load_temps cx cE lc cl lc1 : r_load cx cE lc = Ok (cl, lc1) -> cx <> [] ->
  (List.length cE + List.length cx <= 14)%nat.
Proof.
  intros XL NE. destruct (r_load_shape cx cE lc cl lc1 XL NE) as (thn & lc1' & els & lc2 & E1 & _ & _).
  destruct (load_fields_unfold (List.length cx) cx cE Last Release lc thn lc1' NE E1) as (c0 & lc0 & lv & _ & Hlv & _).
  change (3 - bp_n Last)%N with 3%N in Hlv. set (rl := rest_len (List.length cx) 3) in *.
  assert (Hrl : rl = (List.length cx - 3)%nat) by apply X86MemStoreChain.rest_len_val.
  assert (Ln : (1 <= List.length cx)%nat) by (destruct cx; [contradiction|cbn; lia]).
  destruct (rev (skipn rl cx)) as [|b l] eqn:ER.
  { apply (f_equal (@List.length binding)) in ER. rewrite rev_length, skipn_length in ER. cbn [List.length] in ER. lia. }
  assert (Ll : S (List.length l) = (List.length cx - rl)%nat).
  { apply (f_equal (@List.length binding)) in ER. rewrite rev_length, skipn_length in ER. cbn [List.length] in ER. lia. }
  cbn [load_values] in Hlv.
  match type of Hlv with context [load_value ?a1 ?a2 ?a3 ?a4 ?a5 ?a6] =>
    destruct (load_value a1 a2 a3 a4 a5 a6) as [[ca lca]|] eqn:Ea; cbn [rbind] in Hlv; [|discriminate] end.
  destruct (load_value_shape _ _ _ _ _ _ _ _ Ea) as (K & _).
  rewrite !app_length, rev_length, firstn_length in K. lia.
Qed.

Section HLoad.
Variable im : image.
Variable types : list tydecl.
Variable CLO : Z -> ident -> list clause -> ctx -> Prop.
Local Notation hrel := (hrel types CLO).
Local Notation hvrep := (hvrep types CLO).
Local Notation xrep := (HRep.xrep types CLO jump_length any_int).
Local Notation xflds := (HRep.xflds types CLO jump_length any_int).
Local Notation xreps := (HRep.xreps types CLO jump_length any_int).

Theorem hsim_load cE cx heE x vq q fs (e1 : env) hs s lc cl lc1 pc lk hl fl cl0 :
  hrel cE heE hs s ->
  rget s (pos_reg Fst (List.length cE)) = Some q ->
  xflds (hword s) fs q -> fs <> [] ->
  map snd e1 = fs -> env_ids e1 = ids cx ->
  Forall2 (fun b f => chi_of f = bchi b /\ ty_of f = bty b) cx fs ->
  NoDup (ids (cE ++ cx)) ->
  InvA HEAP_BASE hs (roots (heE ++ [(x, vq, q)])) hl fl cl0 -> P03 hs ->
  HeapRep.rep_flds lk (Heap.m hs) fs q ->
  Heap.frontier hs <= LIMIT ->
  r_load cx cE lc = Ok (cl, lc1) -> placed im pc cl ->
  exists s', star im pc s (padd pc (List.length cl)) s' /\
    hrel (cE ++ cx) (heE ++ attach e1 (load_ptrs hs (List.length fs) q))
         (Heap.load_object (Heap.nlinks (List.length fs)) q hs) s'.
Proof.
  intros R LQ XF NE E1S E1F KIN ND IA K03 RF HFr XL PL.
  pose proof (hrel_length R) as L0.
  pose proof (Forall2_len _ _ _ KIN) as Lcx.
  set (n := List.length fs) in *. set (k := Heap.nlinks n). set (w := hword s). set (F := Heap.frontier hs).
  assert (Hn : (0 < n)%nat) by (unfold n; destruct fs; [congruence|cbn; lia]).
  destruct (HRep.xflds_cons_inv types CLO jump_length any_int w fs q XF NE) as (Bq & FB & PAD & XS). fold n k in FB, PAD, XS.
  set (A := waddrs k w q) in *.
  assert (LA_ : List.length A = (2 * k + 3)%nat) by apply waddrs_length.
  pose proof (nlinks_bound n Hn) as NB1. pose proof (nlinks_upper n) as NB2. fold k in NB1, NB2.
  assert (NEcx : cx <> []) by (intros ->; cbn in Lcx; lia).
  (* the field slots *)
  assert (FLD : forall i f, nth_error fs i = Some f -> xrep w f (w (nth (List.length A - n + i) A 0)) (w (nth (List.length A - n + i) A 0 + 8))).
  { intros i f Hf. destruct (HRep.xreps_nth types CLO jump_length any_int w fs _ XS i f Hf) as (a & Ha & X).
    rewrite nth_error_skipn_add in Ha. rewrite (nth_error_nth _ _ 0 Ha). exact X. }
  assert (SLOT : forall a, In a A -> w a = 0 \/ is_blk (w a)).
  { intros a Ha. destruct (In_nth A a 0 Ha) as (j & Hj & <-).
    destruct (Nat.lt_ge_cases j (List.length A - n)) as [Lj|Lj]; [left; now apply PAD|].
    destruct (nth_error fs (j - (List.length A - n))) as [f|] eqn:Hf; [|apply nth_error_None in Hf; fold n in Hf; lia].
    pose proof (FLD _ f Hf) as X. replace (List.length A - n + (j - (List.length A - n)))%nat with j in X by lia.
    eapply (HRep.xrep_ptr types CLO jump_length any_int); eauto. }
  (* hypotheses of the refinement theorem *)
  assert (OKW : lf_share_ok (S (List.length cx)) w cx X86.Last q).
  { apply lf_share_ok_words; [exact NEcx| | | |]; cbv zeta; rewrite Lcx; fold n k A; auto.
    intros i b Hb KE. destruct (nth_error fs i) as [f|] eqn:Hf; [|apply nth_error_None in Hf; apply nth_error_Some_lt in Hb; fold n in Hf; lia].
    destruct (Forall2_nth _ _ _ _ _ _ KIN Hb Hf) as [Kc _]. pose proof (FLD i f Hf) as X.
    destruct f; cbn in Kc; try congruence. inversion X; subst. congruence. }
  pose proof (hr_heq R) as HQ. fold F in HQ.
  assert (BND : forall y, is_blk y -> 0 <= hword s y <= HB).
  { intros y Hy. destruct (heq_abs_ps F s hs y HQ Hy) as [_ E]. rewrite <- E.
    eapply hdr_bounds_r; [exact IA|apply P03_P3; exact K03|exact HFr| |exact Hy].
    pose proof (roots_length (heE ++ [(x, vq, q)])) as RL. rewrite app_length in RL. cbn [List.length] in RL.
    pose proof (hrel_small types CLO _ _ _ _ R). lia. }
  pose proof (r_load_temps cx cE lc cl lc1 XL NEcx) as TMP.
  assert (ROOM : forall y, is_blk y -> min_int + 1 <= hword s y /\ hword s y + Z.of_nat (List.length cx) <= max_int).
  { intros y Hy. specialize (BND y Hy). unfold HB, min_int, max_int, two63 in *. lia. }
  assert (LQ' : rget s (rtp (2 * N.of_nat (List.length cE))) = Some q).
  { rewrite pos_reg_rtp in LQ. cbn [tnum_n] in LQ. rewrite N.add_0_r in LQ. exact LQ. }
  destruct (rv_load_chain im pc cx cE lc cl lc1 s q F XL NEcx PL LQ' Bq
              (ex_intro _ _ (hr_heapreg R)) (ex_intro _ _ (hr_freereg R)) OKW ROOM)
    as (s' & ST & EQ & LD & KEEP & NBS & (h' & RH') & RFR).
  rewrite (lf_addrs_waddrs (hword s) cx q NEcx) in LD. rewrite Lcx in LD, EQ. fold n k w A in LD, EQ.
  (* the abstraction afterwards *)
  assert (HQL : heq (Heap.load_object k q (abs_heap F s)) (Heap.load_object k q hs)).
  { apply heq_load_object; [exact HQ|apply P03_P3; exact K03| |].
    - cbn [abs_heap Heap.m]. rewrite obj_blocks_abs. exact FB.
    - cbn [abs_heap Heap.m]. rewrite obj_blocks_abs. intros b Hb. cbn [abs_mem Heap.ps].
      destruct (wblocks_slots w k q b Hb) as (S1 & S2 & S3). fold A in S1, S2, S3.
      repeat (apply Forall_cons); [apply SLOT; exact S1|apply SLOT; exact S2| |apply Forall_nil].
      destruct S3 as [S3|S3]; [apply SLOT; exact S3|right]. rewrite Forall_forall in FB. apply FB. exact S3. }
  set (hs' := Heap.load_object k q hs) in *.
  assert (HQ1 : heq (abs_heap F s') hs') by (eapply heq_eqB; [exact EQ|exact HQL]).
  assert (EF' : Heap.frontier hs' = F) by (destruct HQ1 as (_ & _ & X & _); symmetry; exact X).
  assert (EH : h' = Heap.heap hs').
  { destruct HQ1 as (X & _). cbn [abs_heap Heap.heap] in X. unfold reg_or0 in X. rewrite RH' in X. exact X. }
  assert (EFREE : Heap.free hs' = Heap.free hs).
  { destruct HQ1 as (_ & X & _). cbn [abs_heap Heap.free] in X. unfold reg_or0 in X. rewrite RFR, (hr_freereg R) in X. congruence. }
  assert (EXT : forall a, ~ is_blk a -> hword s' a = hword s a) by exact NBS.
  (* the pointers of the machine are the loaded words *)
  assert (LP : load_ptrs hs n q = map w (skipn (List.length A - n) A)).
  { unfold n, w, A, k. apply (load_ptrs_words F s hs lk fs q HQ K03 NE RF). exact FB. }
  exists s'. split; [exact ST|].
  destruct R as [Hr Fr HQ0 Ids NDc Vals]. split.
  - rewrite RH'. now rewrite EH.
  - rewrite RFR, Fr. now rewrite EFREE.
  - rewrite EF'. exact HQ1.
  - unfold env_ids, ids, erase_env in *. rewrite !map_app. f_equal; [exact Ids|].
    fold (erase_env (attach e1 (load_ptrs hs n q))). rewrite attach_erase. exact E1F.
  - exact ND.
  - intros i y v p Hi. destruct (Nat.lt_ge_cases i (List.length heE)) as [Li|Li].
    + rewrite nth_error_app1 in Hi by exact Li.
      destruct (Vals i y v p Hi) as (b & Hb & V).
      exists b. split; [rewrite nth_error_app1 by lia; exact Hb|].
      destruct V as [b z p t A0 B T Lg|b v p a t1 t2 A0 K1 K2 T1 T2 Lg1 Lg2 X].
      * eapply hv_int; eauto. apply rtpos_rtp in T as [-> _]. rewrite KEEP; [exact Lg|]. cbn [tnum_n]. lia.
      * pose proof T1 as T1'. pose proof T2 as T2'.
        apply rtpos_rtp in T1' as [-> _]. apply rtpos_rtp in T2' as [-> _].
        eapply (hv_ptr types CLO s' i b v p a); eauto.
        -- rewrite KEEP; [exact Lg1|]. cbn [tnum_n]. lia.
        -- rewrite KEEP; [exact Lg2|]. cbn [tnum_n]. lia.
        -- eapply (HRep.xrep_ext types CLO jump_length any_int); [exact EXT|exact X].
    + rewrite nth_error_app2 in Hi by exact Li. set (j := (i - List.length heE)%nat) in *.
      destruct (attach_nth _ _ _ _ _ _ Hi) as [He1 Ep].
      assert (Hf : nth_error fs j = Some v).
      { rewrite <- E1S. rewrite nth_error_map, He1. reflexivity. }
      assert (Lj : (j < n)%nat) by (apply nth_error_Some_lt in Hf; exact Hf).
      destruct (nth_error cx j) as [b|] eqn:Hb; [|apply nth_error_None in Hb; lia].
      exists b. split; [rewrite nth_error_app2 by lia; replace (i - List.length cE)%nat with j by lia; exact Hb|].
      destruct (Forall2_nth _ _ _ _ _ _ KIN Hb Hf) as [Kc Kt].
      destruct (LD j b Hb) as [LS LF]. cbv zeta in LS, LF.
      replace (List.length cE + j)%nat with i in LS, LF by lia.
      set (a := nth (List.length A - n + j) A 0) in *.
      pose proof (FLD j v Hf) as X. fold a in X.
      assert (Ep' : p = w a).
      { rewrite Ep, LP. rewrite (nth_indep _ 0 (w 0)) by (rewrite map_length, skipn_length; lia).
        rewrite map_nth. f_equal. unfold a.
        assert (Hs : nth_error (skipn (List.length A - n) A) j = nth_error A (List.length A - n + j)) by apply nth_error_skipn_add.
        destruct (nth_error A (List.length A - n + j)) as [a0|] eqn:Ha; [|apply nth_error_None in Ha; lia].
        rewrite (nth_error_nth _ _ 0 Hs), (nth_error_nth _ _ 0 Ha). reflexivity. }
      assert (I14 : (i < 14)%nat) by lia.
      assert (RS : rget s' (pos_reg Snd i) = Some (w (a + 8))).
      { rewrite pos_reg_rtp. cbn [tnum_n]. exact LS. }
      assert (RFs : bchi b <> Ext -> rget s' (pos_reg Fst i) = Some (w a)).
      { intros KE. rewrite pos_reg_rtp. cbn [tnum_n]. rewrite N.add_0_r. exact (LF KE). }
      destruct (bchi b) eqn:Kb.
      * rewrite Ep'. apply (hv_ptr types CLO s' i b v (w a) (w (a + 8)) (pos_reg Fst i) (pos_reg Snd i));
          [congruence|congruence|exact Kt|now apply rtpos_lt|now apply rtpos_lt|apply RFs; congruence|exact RS
          |eapply (HRep.xrep_ext types CLO jump_length any_int); [exact EXT|exact X]].
      * rewrite Ep'. apply (hv_ptr types CLO s' i b v (w a) (w (a + 8)) (pos_reg Fst i) (pos_reg Snd i));
          [congruence|congruence|exact Kt|now apply rtpos_lt|now apply rtpos_lt|apply RFs; congruence|exact RS
          |eapply (HRep.xrep_ext types CLO jump_length any_int); [exact EXT|exact X]].
      * destruct v as [z| |]; cbn in Kc, Kt; try congruence. inversion X; subst.
        eapply hv_int; [exact Kb|congruence|apply (rtpos_lt Snd i); exact I14|].
        rewrite RS. congruence.
Qed.
End HLoad.
