(* C07, forward simulation for HEAP statements on AArch64, part 7b: the induction over the fuel of the instrumented machine,
   all eleven statement forms, progress included.  Differences from Proof/X86HSimProg.v: the literals must be 64-bit
   values (`stmt_lits`, threaded like in Proof/A64SimProgC.v; closure bodies carry it in `hclo_ok`), Invoke continues in
   `finishes`-form (an indirect branch lands on the first real instruction at the closure's address), the frame above the
   spill area is `outer_ok st0` (what the prologue stored), the epilogue comes as the hypothesis CLEAN. *)
From Coq Require Import List ZArith NArith String Bool Lia FMapPositive Permutation.
From SCC Require Import Base.Sexp Lang.AxSyn Sem.AxSem Sem.AxHeap Model.ParMoves Model.Backend Model.A64 Sem.A64Sem
     Model.Linearize Model.LinCheck Generated.Constants Proof.LinBasics Proof.LinTyping Proof.LinMachine
     Proof.A64State Proof.A64ImmHw Proof.A64Imm Proof.A64Sel Proof.A64PM Proof.A64Exec
     Proof.A64MemSubst Proof.SubstGraph Proof.SubstBackends Proof.A64Subst Proof.A64Wf Proof.A64Print Proof.A64Entry
     Proof.A64SimRel Proof.A64SimStmt Proof.A64SimAddr Proof.A64SimClo Proof.A64SimProg Proof.A64SimProgC Proof.A64SimTop
     Proof.HRep Proof.A64Mem Proof.A64MemOps Proof.A64HSimRel Proof.A64HSimStmt Proof.A64HConv Proof.A64HSimStore Proof.A64HSimLoad
     Proof.A64HSimSubst Proof.A64HLayout Proof.A64HSimHeapA Proof.X86HAnn Proof.A64HSimHeapB Proof.A64HSimHeapC Proof.A64HSimProgA.
From SCC Require Model.Heap Proof.HeapMore Proof.HeapTrace Proof.HeapRep Proof.AxHeapTyping Proof.AxHeapSafe
     Proof.X86HeapDefs Proof.X86HeapCongr Proof.X86HFrame Proof.X86HSimHeapB Proof.X86HSimProgA Proof.X86HSimProg.
Import Sem.AxHeap.   (* after Proof.A64ImmHw, which also defines hstep / hexec *)
Import ListNotations.
Open Scope Z_scope.
Open Scope list_scope.

Notation has_in_ids := X86HSimProg.has_in_ids.
Notation find_clause_in := X86HSimProg.find_clause_in.
Notation map_h_id_app := X86HSimProg.map_h_id_app.
Notation names_push := X86HSimProg.names_push.
Notation names_prefix := X86HSimProg.names_prefix.
Notation firstn_app_exact := X86HSimHeapB.firstn_app_exact.
Lemma vars_ctx_of_env ce : vars (HRep.ctx_of_env ce) = map fst ce.
Proof. unfold vars, HRep.ctx_of_env. rewrite map_map. reflexivity. Qed.

Section MainH.
Variable im : image.
Variable p : prog.
Variable sp : Z.
Variable st0 : PM.t Z.
Hypothesis IMG : img_ok im.
Hypothesis FWD : fwd_ok im.
Hypothesis SMALL : forall pc a, PM.find pc (addr_of im) = Some a -> a < 4611686018427387904.
Hypothesis TAGS : forall d, In d (ptypes p) -> Z.of_nat (List.length (txtors d)) < 2305843009213693952.
Hypothesis PLT : forall d, In d (ptypes p) -> hash_name (label_of_type_name (show_ident (tname d))) = false.
Local Notation outer_ok := (outer_ok st0 sp).
Hypothesis DEFS : forall d, In d (pdefs p) ->
  exists pcd lcd cd lcd', find_label (labels im) (show_ident (dname d) +++ "_") = Some pcd /\
    PM.find pcd (code im) = Some (LAB (show_ident (dname d) +++ "_")) /\
    acs (ptypes p) (dbody d) (dctx d) lcd = Ok (cd, lcd') /\
    code_at im (Pos.succ pcd) cd /\ labels_at_nh im (Pos.succ pcd) cd.
Hypothesis CLEAN : exists pcc, find_label (labels im) "cleanup" = Some pcc /\
  forall s z, frame_ok s sp -> outer_ok s -> rget s RETURN1 = Some z -> finishes im pcc s (finish (out s) (OExit z)).
Hypothesis LP : lin_check_prog p = true.
Hypothesis ANN : ann_check_prog p = true.
Hypothesis LITS : forall d, In d (pdefs p) -> stmt_lits (dbody d) = true.
Notation CLO := (hclo_ok im p).
Local Notation hrel := (hrel (ptypes p) CLO).
Local Notation hinv := (hinv p).

Lemma LIN d : In d (pdefs p) -> lin_check (sigs_of p) (dctx d) (dbody d) = true.
Proof. unfold lin_check_prog in LP. rewrite forallb_forall in LP. exact (LP d). Qed.
Lemma ANNd d : In d (pdefs p) -> ann_check (dctx d) (dbody d) = true.
Proof. unfold ann_check_prog in ANN. rewrite forallb_forall in ANN. exact (ANN d). Qed.

Lemma type_nh tn xs : type_xtors (sigs_of p) (Decl tn) = Some xs -> forall lcx, hash_name (type_label (Decl tn) lcx) = false.
Proof.
  unfold type_xtors. cbn [sigs_of sg_types]. destruct (find (fun d => ident_eqb (tname d) tn) (ptypes p)) as [d|] eqn:FD; [|discriminate].
  intros _ lcx. apply find_some in FD as [IN EQ]. apply ident_eqb_eq in EQ. subst tn.
  unfold type_label. cbn [show_ty]. apply hash_name_sub. exact (PLT d IN).
Qed.

Ltac hstep_with HS G := cbn [hexec hc_env hc_heap hc_stmt] in G |- *; rewrite HS in G |- *.

Lemma stmt_lits_switch v t cls : stmt_lits (Switch v t cls) = true -> clauses_lits cls = true.
Proof.
  cbn [stmt_lits]. intros G. induction cls as [|[[x cx] b] r IH]; [reflexivity|]. cbn [clauses_lits forallb cl_body snd].
  apply andb_true_iff in G as [G1 G2]. rewrite G1. exact (IH G2).
Qed.

(* what the simulation says of one statement with a given amount of fuel *)
Definition sim_stmt (fuel : nat) (s : stmt) : Prop := forall c he hs ot tr st pc code lc lc',
  lin_check (sigs_of p) c s = true -> ann_check c s = true -> stmt_lits s = true ->
  acs (ptypes p) s c lc = Ok (code, lc') -> code_at im pc code -> labels_at_nh im pc code ->
  hrel c he hs st sp -> map h_id he = vars c -> hinv he hs s -> outer_ok st -> out st = ot ->
  not_oof (fst (fst (hexec fuel p (mkhc he hs s) ot tr))) ->
  finishes im pc st (fst (fst (hexec fuel p (mkhc he hs s) ot tr))).

Lemma exec_substitute fuel re next : (forall s, sim_stmt fuel s) -> sim_stmt (S fuel) (Substitute re next).
Proof.
  intros IH c he hs ot tr st pc code lc lc' LC AN SLT CS CA LA R NM HI OK OUT G.
  pose proof (proj2 (hr_frame R)) as SPOK.
  destruct (hinv_invA p _ _ _ HI) as (hl & fl & cl0 & IA).
  pose proof (X86HSimProgA.hi_p03 _ _ _ _ HI) as K03. pose proof (hinv_fit0 p _ _ _ HI) as FIT0.
  cbn [lin_check] in LC. apply andb_true_iff in LC as [_ LC]. apply andb_true_iff in LC as [LCs LCn].
  cbn [ann_check] in AN.
  destruct (hsubst_total he re) as (he' & HSB).
  { intros q Hq. rewrite (hr_ids R). rewrite forallb_forall in LCs. eapply has_in_ids. exact (LCs q Hq). }
  assert (HS : hstep p he hs (Substitute re next) = HStep (subst_ops he re) he' next None) by (cbn [hstep]; now rewrite HSB).
  hstep_with HS G.
  destruct (cs_substitute _ _ _ _ _ _ _ CS) as (c1 & lc1 & c2 & c3 & WC & CE & NX & ->).
  assert (NDn : NoDup (new_ids re)) by (rewrite <- ids_new; exact (lin_nodup _ _ _ LCn)).
  rewrite app_assoc in CA, LA. apply code_at_app in CA as [CA2 CA3]. apply labels_at_nh_app in LA as [LA2 LA3].
  destruct (hsim_substitute im (ptypes p) CLO c he hs st sp re he' c1 lc lc1 c2 pc hl fl cl0 R NDn) as (s' & X & R' & FE); auto.
  { intros q Hq. rewrite forallb_forall in LCs. exact (LCs q Hq). }
  { eapply hrel_ctx_of; eauto. }
  { lia. }
  eapply exec_to_finishes; [exact X|].
  eapply (IH next (map fst re) he' _ ot _ s'); try eassumption.
  - eapply hsubst_names; eauto.
  - eapply hinv_step; eauto.
  - eapply hframe_eq_outer; eauto.
  - destruct FE as (O & _). congruence.
Qed.

Lemma exec_call fuel label args : (forall s, sim_stmt fuel s) -> sim_stmt (S fuel) (Call label args).
Proof.
  intros IH c he hs ot tr st pc code lc lc' LC AN SLT CS CA LA R NM HI OK OUT G.
  pose proof (hrel_length R) as LEN.
  cbn [lin_check] in LC. apply andb_true_iff in LC as [_ LC].
  destruct (lookup_label (sigs_of p) label) as [ps|] eqn:LL; [|discriminate].
  destruct (lookup_label_find_def p label ps LL) as (d & FD & <-).
  destruct (bind_total (vars (dctx d)) (map snd (erase_env he))) as (e' & BD).
  { apply sig_match_iff, same_kt_length in LC. unfold vars, erase_env. rewrite !map_length. unfold hentry in *. lia. }
  assert (HS : hstep p he hs (Call label args) = HStep [] (attach e' (ptrs he)) (dbody d) None) by (cbn [hstep]; now rewrite FD, BD).
  hstep_with HS G. cbn [hrun fold_left rev_append push_print] in G |- *.
  unfold find_def in FD. apply find_some in FD as [IN EQ]. apply ident_eqb_eq in EQ. subst label.
  destruct (cs_call _ _ _ _ _ _ _ CS) as (-> & _).
  destruct (DEFS d IN) as (pcd & lcd & cd & lcd' & FL & CLb & CSd & CAd & LAd).
  apply code_at_cons in CA as [CJ _].
  eapply exec_to_finishes.
  { eapply exec_jump; [exact CJ|cbn [step]; unfold goto_label; rewrite FL; reflexivity|].
    eapply exec_next; [exact CLb|reflexivity|apply exec_refl]. }
  eapply (IH (dbody d) (dctx d) (attach e' (ptrs he)) hs ot _ st); try eassumption.
  - exact (LIN d IN).
  - exact (ANNd d IN).
  - exact (LITS d IN).
  - eapply hbind_rel; eauto. exact (lin_nodup _ _ _ (LIN d IN)).
  - rewrite attach_names. exact (bind_ids _ _ _ BD).
  - exact (hinv_step p LP _ _ _ _ _ _ _ HI HS).
Qed.

Lemma exec_let fuel v t tag args next : (forall s, sim_stmt fuel s) -> sim_stmt (S fuel) (Let v t tag args next).
Proof.
  intros IH c he hs ot tr st pc code lc lc' LC AN SLT CS CA LA R NM HI OK OUT G.
  pose proof (proj2 (hr_frame R)) as SPOK.
  destruct (hinv_invA p _ _ _ HI) as (hl & fl & cl0 & IA).
  pose proof (X86HSimProgA.hi_p03 _ _ _ _ HI) as K03.
  pose proof (hinv_ptrs_ok p _ _ _ HI) as EX.
  pose proof LC as LC0. cbn [lin_check] in LC. apply andb_true_iff in LC as [_ LC].
  destruct (split_lastn (List.length args) c) as [[c0 tl]|] eqn:SPL; [|discriminate].
  apply split_lastn_Some in SPL as [-> SPLn].
  apply andb_true_iff in LC as [LC LCn]. apply andb_true_iff in LC as [CM AO].
  apply ctx_match_Prop in CM as [IDS SKT].
  assert (TN : exists tn, ty_name t = Some tn).
  { unfold args_ok, lookup_xtor, type_xtors in AO. destruct t as [|tn]; [discriminate|]. cbn. eauto. }
  destruct TN as (tn & TN).
  destruct (hrel_split (ptypes p) CLO c0 tl he hs st sp R) as (he0 & fs & SL & -> & L0 & LF & Ids). rewrite SPLn in SL, LF.
  assert (IDE : ids_eqb (env_ids (erase_env fs)) (ids args) = true) by (rewrite Ids, IDS; apply ids_eqb_refl).
  assert (HS : hstep p (he0 ++ fs) hs (Let v t tag args next) =
               HStep [Heap.OAllocObj (map store_ptr fs)] (he0 ++ [(v, VObj tn tag (map h_val fs), fst (Heap.alloc_object (map store_ptr fs) hs))]) next None).
  { cbn [hstep]. rewrite TN, SL, IDE. reflexivity. }
  hstep_with HS G. cbn [rev_append push_print] in G |- *.
  pose proof (hinv_step p LP _ _ _ _ _ _ _ HI HS) as HI'.
  cbn [hrun fold_left Heap.step] in HI'.
  destruct (hinv_regs_nz p _ _ _ HI') as [HH0 HF0]. pose proof (hinv_fit0 p _ _ _ HI') as HF.
  cbn [ann_check] in AN. rewrite <- SPLn, split_lastn_app in AN.
  destruct (hsim_let im p TAGS _ _ hs st sp v t tag args next lc code lc' pc he0 fs tn hl fl cl0 R LC0 CS CA LA TN SL IA K03 EX HF HH0 HF0)
    as (c12 & c3 & lc1 & s' & -> & NX & LCn' & X & R' & FE).
  rewrite firstn_app_exact in NX, LCn', R' by exact SPLn.
  apply code_at_app in CA as [_ CA3]. apply labels_at_nh_app in LA as [_ LA3].
  eapply exec_to_finishes; [exact X|].
  eapply (IH next (c0 ++ [mkb v Prd t]) _ _ ot _ s'); try eassumption.
  - apply names_push; [exact (names_prefix NM L0)|reflexivity].
  - eapply hframe_eq_outer; eauto.
  - destruct FE as (O & _). congruence.
Qed.

Lemma exec_switch fuel v t cls : (forall s, sim_stmt fuel s) -> sim_stmt (S fuel) (Switch v t cls).
Proof.
  intros IH c he hs ot tr st pc code lc lc' LC AN SLT CS CA LA R NM HI OK OUT G.
  pose proof (proj2 (hr_frame R)) as SPOK.
  destruct (hinv_invA p _ _ _ HI) as (hl & fl & cl0 & IA).
  pose proof (X86HSimProgA.hi_p03 _ _ _ _ HI) as K03. pose proof (hinv_fit0 p _ _ _ HI) as FIT0.
  pose proof LC as LC0. rewrite lin_check_switch in LC. apply andb_true_iff in LC as [_ LC].
  destruct (split_lastn 1 c) as [[c0 [|b [|b' r]]]|] eqn:SLc; try discriminate.
  apply split_lastn_Some in SLc as [-> _].
  apply andb_true_iff in LC as [LC LCc]. apply andb_true_iff in LC as [LC CO]. apply andb_true_iff in LC as [LC TY].
  apply andb_true_iff in LC as [IDb CH]. apply N.eqb_eq in IDb. apply ty_eqb_eq in TY. apply chi_eqb_eq in CH.
  destruct (hrel_last (ptypes p) CLO c0 b he hs st sp R ltac:(congruence)) as (he0 & x & val & q & dw & -> & L0 & IDX & K1 & K2 & X).
  rewrite IDb in IDX.
  destruct val as [z|tn tag fs|tn cls' ce]; cbn in K1; try congruence. cbn in K2. rewrite <- K2 in *.
  inversion X as [|tn1 tag1 fs1 q1 a1 TW XF|]; subst.
  destruct TW as (d & k' & xk & FD & XP' & _ & FX & SK).
  pose proof CO as CO'. unfold cls_ok, type_xtors in CO'. cbn [sigs_of sg_types] in CO'. rewrite FD in CO'.
  destruct (find_clause_total cls (txtors d) tag xk CO' FX) as (cl & FC).
  destruct (find_clause_pos cls (txtors d) tag cl 0%N CO' FC) as (k & xk0 & Hk & Hxk & XP & FX' & SMk).
  assert (xk0 = xk) by congruence. subst xk0.
  destruct (bind_total (vars (cl_ctx cl)) fs) as (e1 & BD).
  { apply sig_match_iff, same_kt_length in SMk. apply Forall2_len in SK. unfold vars. rewrite map_length. lia. }
  unfold henv, hentry in *.
  assert (HS : hstep p (he0 ++ [(x, VObj tn tag fs, q)]) hs (Switch v (Decl tn) cls) =
               HStep (load_ops (List.length (cl_ctx cl)) q) (he0 ++ attach e1 (load_ptrs hs (List.length (cl_ctx cl)) q)) (cl_body cl) None).
  { cbn [hstep]. rewrite split_last1_app. apply N.eqb_eq in IDX. rewrite IDX, FC, BD. reflexivity. }
  hstep_with HS G. cbn [push_print] in G |- *.
  pose proof (hinv_step p LP _ _ _ _ _ _ _ HI HS) as HI'.
  assert (RF' : exists lk, fs <> [] -> HeapRep.rep_flds lk (Heap.m hs) fs q).
  { destruct (hinv_last_rep p _ _ _ _ _ _ HI) as (lk & RP). exists lk. intros _. inversion RP; subst. assumption. }
  destruct RF' as (lk & RFlk).
  assert (NHL : forall lcx, hash_name (type_label (Decl tn) lcx) = false).
  { unfold cls_ok in CO. destruct (type_xtors (sigs_of p) (Decl tn)) as [xs|] eqn:TX; [|discriminate]. eapply type_nh; eauto. }
  destruct (hsim_switch im p IMG SMALL _ _ hs st sp v (Decl tn) cls lc code lc' pc he0 x tn tag fs q cl e1 lk hl fl cl0 R LC0 CS CA LA NHL
              (split_last1_app _ _) FC BD IA K03 ltac:(lia) RFlk)
    as (pcb & lcb & cb & lcb' & s' & X' & CSb & CAb & LAb & LCb & R' & FE).
  rewrite removelast_last in CSb, LCb, R'.
  eapply exec_to_finishes; [exact X'|].
  rewrite ann_check_switch in AN. change 1%nat with (List.length [b]) in AN. rewrite split_lastn_app in AN.
  eapply (IH (cl_body cl) (c0 ++ cl_ctx cl) _ _ _ _ s'); try eassumption.
  - unfold ann_clauses_sw in AN. rewrite forallb_forall in AN. apply AN. eapply find_clause_in; eauto.
  - apply stmt_lits_switch in SLT. unfold clauses_lits in SLT. rewrite forallb_forall in SLT. apply SLT. eapply find_clause_in; eauto.
  - rewrite map_h_id_app, (names_prefix NM L0), attach_names, (bind_ids _ _ _ BD). unfold vars. now rewrite map_app.
  - eapply hframe_eq_outer; eauto.
  - destruct FE as (O & _). congruence.
Qed.

Lemma exec_create fuel v t env cls next : (forall s, sim_stmt fuel s) -> sim_stmt (S fuel) (Create v t env cls next).
Proof.
  intros IH c he hs ot tr st pc code lc lc' LC AN SLT CS CA LA R NM HI OK OUT G.
  pose proof (proj2 (hr_frame R)) as SPOK.
  destruct (hinv_invA p _ _ _ HI) as (hl & fl & cl0 & IA).
  pose proof (X86HSimProgA.hi_p03 _ _ _ _ HI) as K03.
  pose proof (hinv_ptrs_ok p _ _ _ HI) as EX.
  destruct env as [env|]; [|cbn [lin_check] in LC; apply andb_true_iff in LC as [_ LC]; discriminate].
  pose proof LC as LC0. rewrite lin_check_create in LC. apply andb_true_iff in LC as [_ LC].
  destruct (split_lastn (List.length env) c) as [[c0 tl]|] eqn:SPL; [|discriminate].
  pose proof SPL as SPL0. apply split_lastn_Some in SPL as [-> SPLn].
  apply andb_true_iff in LC as [LC LCn]. apply andb_true_iff in LC as [LC LCc]. apply andb_true_iff in LC as [CM CO].
  apply ctx_match_Prop in CM as [IDS SKT].
  rewrite ann_check_create, SPL0 in AN. apply andb_true_iff in AN as [AN ANn]. apply andb_true_iff in AN as [ANe ANc].
  apply ctx_eqb_eq in ANe. subst tl.
  assert (TN : exists tn, t = Decl tn).
  { unfold cls_ok, type_xtors in CO. destruct t as [|tn]; [discriminate|eauto]. }
  destruct TN as (tn & ->).
  destruct (hrel_split (ptypes p) CLO c0 env he hs st sp R) as (he0 & cap & SL & -> & L0 & LF & Ids).
  assert (IDE : ids_eqb (env_ids (erase_env cap)) (ids env) = true) by (rewrite Ids; apply ids_eqb_refl).
  destruct (bind_total (vars env) (map h_val cap)) as (ce & BDc).
  { unfold vars. rewrite !map_length. lia. }
  assert (HS : hstep p (he0 ++ cap) hs (Create v (Decl tn) (Some env) cls next) =
               HStep [Heap.OAllocObj (map store_ptr cap)] (he0 ++ [(v, VClo tn cls ce, fst (Heap.alloc_object (map store_ptr cap) hs))]) next None).
  { cbn [hstep ty_name]. rewrite SL, IDE, BDc. reflexivity. }
  hstep_with HS G. cbn [rev_append push_print] in G |- *.
  pose proof (hinv_step p LP _ _ _ _ _ _ _ HI HS) as HI'.
  cbn [hrun fold_left Heap.step] in HI'.
  destruct (hinv_regs_nz p _ _ _ HI') as [HH0 HF0]. pose proof (hinv_fit0 p _ _ _ HI') as HF.
  assert (NHL : forall lcx, hash_name (type_label (Decl tn) lcx) = false).
  { unfold cls_ok in CO. destruct (type_xtors (sigs_of p) (Decl tn)) as [xs|] eqn:TX; [|discriminate]. eapply type_nh; eauto. }
  assert (SKP : skipn (List.length (c0 ++ env) - List.length env) (c0 ++ env) = env).
  { rewrite app_length. replace (List.length c0 + List.length env - List.length env)%nat with (List.length c0) by lia.
    rewrite skipn_app, skipn_all, Nat.sub_diag. reflexivity. }
  destruct (hsim_create im p IMG FWD SMALL _ _ hs st sp v (Decl tn) env cls next lc code lc' pc he0 cap tn ce hl fl cl0
              R LC0 SKP ANc (proj1 (stmt_lits_create _ _ _ _ _ SLT)) CS CA LA NHL eq_refl SL BDc IA K03 EX HF HH0 HF0)
    as (c12 & c3 & lc2 & lc3 & rest' & s' & -> & NX & LCn' & X & R' & FE).
  rewrite firstn_app_exact in NX, LCn', R' by reflexivity.
  apply code_at_app in CA as [_ CA3]. apply code_at_app in CA3 as [CA3 _].
  apply labels_at_nh_app in LA as [_ LA3]. apply labels_at_nh_app in LA3 as [LA3 _].
  eapply exec_to_finishes; [exact X|].
  eapply (IH next (c0 ++ [mkb v Cns (Decl tn)]) _ _ ot _ s'); try eassumption.
  - exact (proj2 (stmt_lits_create _ _ _ _ _ SLT)).
  - apply names_push; [exact (names_prefix NM L0)|reflexivity].
  - eapply hframe_eq_outer; eauto.
  - destruct FE as (O & _). congruence.
Qed.

Lemma exec_invoke fuel v tag t args : (forall s, sim_stmt fuel s) -> sim_stmt (S fuel) (Invoke v tag t args).
Proof.
  intros IH c he hs ot tr st pc code lc lc' LC AN SLT CS CA LA R NM HI OK OUT G.
  pose proof (proj2 (hr_frame R)) as SPOK.
  destruct (hinv_invA p _ _ _ HI) as (hl & fl & cl0 & IA).
  pose proof (X86HSimProgA.hi_p03 _ _ _ _ HI) as K03. pose proof (hinv_fit0 p _ _ _ HI) as FIT0.
  pose proof LC as LC0. cbn [lin_check] in LC. apply andb_true_iff in LC as [_ LC].
  destruct (split_lastn 1 c) as [[c0 [|b [|b' r]]]|] eqn:SLc; try discriminate.
  apply split_lastn_Some in SLc as [-> _].
  apply andb_true_iff in LC as [LC AO]. apply andb_true_iff in LC as [LC TY]. apply andb_true_iff in LC as [IDb CH].
  apply N.eqb_eq in IDb. apply ty_eqb_eq in TY. apply chi_eqb_eq in CH.
  destruct (hrel_last (ptypes p) CLO c0 b he hs st sp R ltac:(congruence)) as (he0 & x & val & q & a & -> & L0 & IDX & K1 & K2 & X).
  rewrite IDb in IDX.
  destruct val as [z|tn tag0 fs|tn cls ce]; cbn in K1; try congruence. cbn in K2.
  inversion X as [| |tn1 cls1 ce1 q1 a1 CLOa XF]; subst.
  pose proof CLOa as (CO & _ & _).
  rewrite <- K2 in *. unfold cls_ok, type_xtors in CO. cbn [sigs_of sg_types] in CO.
  unfold args_ok, lookup_xtor, type_xtors in AO. cbn [sigs_of sg_types] in AO.
  destruct (find (fun d => ident_eqb (tname d) tn) (ptypes p)) as [d|] eqn:FD; [|discriminate].
  destruct (find (fun x => ident_eqb (xname x) tag) (txtors d)) as [xk|] eqn:FX; [|discriminate].
  destruct (find_clause_total cls (txtors d) tag xk CO FX) as (cl & FC).
  destruct (find_clause_pos cls (txtors d) tag cl 0%N CO FC) as (k & xk' & Hk & Hxk & XP & FX' & SMk).
  assert (xk' = xk) by congruence. subst xk'.
  destruct (bind_total (vars (cl_ctx cl)) (map snd (erase_env he0))) as (e1 & BD).
  { apply sig_match_iff, same_kt_length in AO. apply sig_match_iff, same_kt_length in SMk. unfold vars, erase_env. rewrite !map_length. unfold hentry in *. lia. }
  unfold henv, hentry in *.
  assert (HS : hstep p (he0 ++ [(x, VClo tn cls ce, q)]) hs (Invoke v tag (Decl tn) args) =
               HStep (load_ops (List.length ce) q) (attach e1 (ptrs he0) ++ attach ce (load_ptrs hs (List.length ce) q)) (cl_body cl) None).
  { cbn [hstep]. rewrite split_last1_app. apply N.eqb_eq in IDX. rewrite IDX, FC, BD. reflexivity. }
  hstep_with HS G. cbn [push_print] in G |- *.
  pose proof (hinv_step p LP _ _ _ _ _ _ _ HI HS) as HI'.
  assert (RF' : exists lk, ce <> [] -> HeapRep.rep_flds lk (Heap.m hs) (map snd ce) q).
  { destruct (hinv_last_rep p _ _ _ _ _ _ HI) as (lk & RP). exists lk. intros _. inversion RP; subst. assumption. }
  destruct RF' as (lk & RFlk).
  destruct (hsim_invoke im p _ _ hs st sp v tag (Decl tn) args code lc lc' pc he0 x tn cls ce q cl e1 lk hl fl cl0
              R (split_last1_app _ _) FC BD LC0 CS CA IA K03 ltac:(lia) RFlk)
    as (pcb & lcb & cb & lcb' & s' & X' & CSb & CAb & LAb & LCb & ANb & LITb & R' & FE).
  apply X'.
  eapply (IH (cl_body cl) (cl_ctx cl ++ HRep.ctx_of_env ce) _ _ _ _ s'); try eassumption.
  - rewrite map_h_id_app, !attach_names. unfold vars at 1. rewrite map_app. fold (vars (cl_ctx cl)) (vars (HRep.ctx_of_env ce)).
    rewrite vars_ctx_of_env. f_equal. exact (bind_ids _ _ _ BD).
  - eapply hframe_eq_outer; eauto.
  - destruct FE as (O & _). congruence.
Qed.

Lemma exec_literal fuel n v next : (forall s, sim_stmt fuel s) -> sim_stmt (S fuel) (Literal n v next).
Proof.
  intros IH c he hs ot tr st pc code lc lc' LC AN SLT CS CA LA R NM HI OK OUT G.
  pose proof (proj2 (hr_frame R)) as SPOK.
  cbn [lin_check] in LC. apply andb_true_iff in LC as [_ LC]. cbn [ann_check] in AN.
  cbn [stmt_lits] in SLT. apply andb_true_iff in SLT as [SLn SLT].
  assert (HS : hstep p he hs (Literal n v next) = HStep [] (he ++ [(v, VInt n, 0)]) next None) by reflexivity.
  hstep_with HS G. cbn [hrun fold_left rev_append push_print] in G |- *.
  destruct (cs_literal _ _ _ _ _ _ _ _ CS) as (tv & c2 & TV & NX & ->).
  destruct (hsim_literal im (ptypes p) CLO c he hs st sp n v tv R (lin_nodup _ _ _ LC) (proj1 (lit_i64_in64 n) SLn) TV) as (s' & E & R' & FE).
  apply code_at_app in CA as [CA1 CA2]. apply labels_at_nh_app in LA as [_ LA2].
  eapply exec_to_finishes; [apply (run_straight_exec_to im _ pc st s' CA1 E)|].
  eapply (IH next (c ++ [mkb v Ext I64]) _ hs ot _ s'); try eassumption.
  - apply names_push; [exact NM|reflexivity].
  - exact (hinv_step p LP _ _ _ _ _ _ _ HI HS).
  - eapply frame_eq_outer; eauto.
  - destruct FE as (_ & O & _). congruence.
Qed.

Lemma exec_op fuel a op b v next : (forall s, sim_stmt fuel s) -> sim_stmt (S fuel) (Op a op b v next).
Proof.
  intros IH c he hs ot tr st pc code lc lc' LC AN SLT CS CA LA R NM HI OK OUT G.
  pose proof (proj2 (hr_frame R)) as SPOK.
  cbn [lin_check] in LC. apply andb_true_iff in LC as [_ LC]. apply andb_true_iff in LC as [LCo LC].
  apply andb_true_iff in LCo as [HA HB]. cbn [ann_check] in AN.
  destruct (hhas_ext_lookup_int (ptypes p) CLO c he hs st sp a R HA) as (x & LA1).
  destruct (hhas_ext_lookup_int (ptypes p) CLO c he hs st sp b R HB) as (y & LB1).
  destruct (cs_op _ _ _ _ _ _ _ _ _ _ CS) as (tv & ta & tb & c2 & TV & TA & TB & NX & ->).
  apply code_at_app in CA as [CA1 CA2]. apply labels_at_nh_app in LA as [_ LA2].
  destruct (eval_op op x y) as [z|w] eqn:EV.
  - assert (HS : hstep p he hs (Op a op b v next) = HStep [] (he ++ [(v, VInt z, 0)]) next None) by (cbn [hstep]; now rewrite LA1, LB1, EV).
    hstep_with HS G. cbn [hrun fold_left rev_append push_print] in G |- *.
    destruct (hsim_op im (ptypes p) CLO c he hs st sp a op b v x y z tv ta tb R (lin_nodup _ _ _ LC) LA1 LB1 EV TV TA TB) as (s' & E & R' & FE).
    eapply exec_to_finishes; [apply (run_straight_exec_to im _ pc st s' CA1 E)|].
    eapply (IH next (c ++ [mkb v Ext I64]) _ hs ot _ s'); try eassumption.
    + apply names_push; [exact NM|reflexivity].
    + exact (hinv_step p LP _ _ _ _ _ _ _ HI HS).
    + eapply frame_eq_outer; eauto.
    + destruct FE as (_ & O & _). congruence.
  - assert (HS : hstep p he hs (Op a op b v next) = HEnd (OUndef w)) by (cbn [hstep]; now rewrite LA1, LB1, EV).
    hstep_with HS G. cbn [fst].
    destruct (hsim_op_undef im (ptypes p) CLO c he hs st sp a op b v x y w tv ta tb R (lin_nodup _ _ _ LC) LA1 LB1 EV TV TA TB) as (s' & E & O).
    rewrite <- OUT, <- O. eapply exec_undef_finishes; eauto.
Qed.

Lemma exec_print fuel nl v next : (forall s, sim_stmt fuel s) -> sim_stmt (S fuel) (PrintI64 nl v next).
Proof.
  intros IH c he hs ot tr st pc code lc lc' LC AN SLT CS CA LA R NM HI OK OUT G.
  cbn [lin_check] in LC. apply andb_true_iff in LC as [_ LC]. apply andb_true_iff in LC as [HV LC]. cbn [ann_check] in AN.
  destruct (hhas_ext_lookup_int (ptypes p) CLO c he hs st sp v R HV) as (z & LV).
  assert (HS : hstep p he hs (PrintI64 nl v next) = HStep [] he next (Some (nl, z))) by (cbn [hstep]; now rewrite LV).
  hstep_with HS G. cbn [hrun fold_left rev_append push_print] in G |- *.
  destruct (cs_print _ _ _ _ _ _ _ _ CS) as (tv & c2 & TV & NX & ->).
  destruct (hsim_print im (ptypes p) CLO c he hs st sp nl v z tv R LV TV) as (s' & E & R' & O & AE).
  apply code_at_app in CA as [CA1 CA2]. apply labels_at_nh_app in LA as [_ LA2].
  eapply exec_to_finishes; [apply (run_straight_exec_to im _ pc st s' CA1 E)|].
  eapply (IH next c he hs ((nl, z) :: ot) _ s'); try eassumption.
  - exact (hinv_step p LP _ _ _ _ _ _ _ HI HS).
  - eapply above_eq_outer; eauto.
  - congruence.
Qed.

Lemma exec_ifc fuel so a b thenc elsec : (forall s, sim_stmt fuel s) -> sim_stmt (S fuel) (IfC so a b thenc elsec).
Proof.
  intros IH c he hs ot tr st pc code lc lc' LC AN SLT CS CA LA R NM HI OK OUT G.
  pose proof (proj2 (hr_frame R)) as SPOK.
  cbn [lin_check] in LC. apply andb_true_iff in LC as [_ LC].
  apply andb_true_iff in LC as [LC LCe]. apply andb_true_iff in LC as [LCo LCt]. apply andb_true_iff in LCo as [HA HB].
  cbn [ann_check] in AN. apply andb_true_iff in AN as [ANt ANe].
  destruct (hhas_ext_lookup_int (ptypes p) CLO c he hs st sp a R HA) as (x & LA1).
  assert (LB1 : exists y, match b with Some b0 => lookup_int (erase_env he) b0 | None => Some 0 end = Some y).
  { destruct b as [b|]; [|eauto]. exact (hhas_ext_lookup_int (ptypes p) CLO c he hs st sp b R HB). }
  destruct LB1 as (y & LB1).
  assert (HS : hstep p he hs (IfC so a b thenc elsec) = HStep [] he (if eval_cmp so x y then thenc else elsec) None) by (cbn [hstep]; now rewrite LA1, LB1).
  hstep_with HS G. cbn [hrun fold_left rev_append push_print] in G |- *.
  destruct (hsim_ifc im (ptypes p) CLO c he hs st sp so a b x y thenc elsec lc code lc' pc R LA1 LB1 CS CA LA)
    as (c1 & c2 & lc2 & c3 & s' & -> & EL & TH & X & R' & FE).
  assert (OK' : outer_ok s') by (eapply frame_eq_outer; eauto).
  cbn [stmt_lits] in SLT. apply andb_true_iff in SLT as [SLt SLe].
  assert (O' : out s' = ot) by (destruct FE as (_ & O & _); congruence).
  pose proof (hinv_step p LP _ _ _ _ _ _ _ HI HS) as HI'. cbn [hrun fold_left] in HI'.
  eapply exec_to_finishes; [exact X|].
  apply code_at_app in CA as [_ CA]. apply code_at_app in CA as [CA2 CA]. apply code_at_app in CA as [_ CA3].
  apply labels_at_nh_app in LA as [_ LA]. apply labels_at_nh_app in LA as [LA2 LA]. apply labels_at_nh_app in LA as [_ LA3].
  rewrite <- !padd_add in CA3, LA3. cbn [List.length] in CA3, LA3. rewrite Nat.add_assoc in CA3, LA3.
  destruct (eval_cmp so x y).
  - eapply (IH thenc c he hs ot _ s'); try eassumption.
  - eapply (IH elsec c he hs ot _ s'); try eassumption.
Qed.

Lemma exec_exit fuel v : (forall s, sim_stmt fuel s) -> sim_stmt (S fuel) (Exit v).
Proof.
  intros IH c he hs ot tr st pc code lc lc' LC AN SLT CS CA LA R NM HI OK OUT G.
  pose proof (proj2 (hr_frame R)) as SPOK.
  cbn [lin_check] in LC. apply andb_true_iff in LC as [_ HV].
  destruct (hhas_ext_lookup_int (ptypes p) CLO c he hs st sp v R HV) as (z & LV).
  assert (HS : hstep p he hs (Exit v) = HEnd (OExit z)) by (cbn [hstep]; now rewrite LV).
  hstep_with HS G. cbn [fst].
  destruct (cs_exit _ _ _ _ _ _ CS) as (tv & TV & -> & _).
  destruct (hsim_exit_mov im (ptypes p) CLO c he hs st sp v z tv R LV TV) as (s' & E & RAX & F' & FE).
  apply code_at_app in CA as [CA1 CA2]. apply code_at_cons in CA2 as [CJ _].
  destruct CLEAN as (pcc & FL & CAc).
  eapply exec_to_finishes; [apply (run_straight_exec_to im _ pc st s' CA1 E)|].
  eapply exec_to_finishes.
  { eapply exec_jump; [exact CJ|cbn [step]; unfold goto_label; rewrite FL; reflexivity|apply exec_refl]. }
  replace ot with (out s') by (destruct FE as (_ & O & _); congruence).
  apply CAc; auto. eapply frame_eq_outer; eauto.
Qed.

Lemma hsim_exec : forall fuel s c he hs ot tr st pc code lc lc',
  lin_check (sigs_of p) c s = true -> ann_check c s = true -> stmt_lits s = true ->
  acs (ptypes p) s c lc = Ok (code, lc') -> code_at im pc code -> labels_at_nh im pc code ->
  hrel c he hs st sp -> map h_id he = vars c -> hinv he hs s -> outer_ok st -> out st = ot ->
  not_oof (fst (fst (hexec fuel p (mkhc he hs s) ot tr))) ->
  finishes im pc st (fst (fst (hexec fuel p (mkhc he hs s) ot tr))).
Proof.
  induction fuel as [|fuel IH]; intros s; [intros c he hs ot tr st pc code lc lc' _ _ _ _ _ _ _ _ _ _ _ G; exfalso; apply G; reflexivity|].
  destruct s; [apply exec_substitute|apply exec_call|apply exec_let|apply exec_switch|apply exec_create|apply exec_invoke
              |apply exec_literal|apply exec_op|apply exec_print|apply exec_ifc|apply exec_exit]; exact IH.
Qed.
End MainH.
