(* Proof/ShrinkSimProg.v (C04, fragment 2) - top-level calls and the simulation lemma for all
   statements ([FL_all : forall n, FLn p q n]); from programs to the simulation lemma: what wt_ax of the
   output gives (binders fresh along every path, definitions found by name), the shape of
   shrink_prog's output, and the theorem [shrink_correct_fragment2] (hypothesis: wt_ax of the output;
   C04_shrink_correct_fragment2_wt_ax). *)
From Coq Require Import List ZArith NArith String Bool Lia Wf_nat.
From SCC Require Import Proof.CoreInd.
From SCC Require Import Base.Sexp Lang.SynUtil Lang.CoreSyn Lang.AxSyn Sem.AxSem Sem.FsCheck Model.Shrink
     Proof.ShrinkProof Proof.ShrinkSem Proof.ShrinkRn Proof.ShrinkRel Proof.ShrinkSimBase Proof.ShrinkSimCases
     Proof.ShrinkSimEta Proof.ShrinkTfv.
From SCC Require Sem.CoreSem.
From SCC Require Sem.CoreSem Sem.AxCheck.
Import ListNotations.
Open Scope list_scope.

Section Top.
Variable p : fsprog.
Variable q : prog.
Notation P := (CoreSem.fs2c_prog p).
Notation data := (fspdata p).
Notation codata := (fspcodata p).
Notation defs := (fspdefs p).
Notation m0 := (fspmax p).
Notation D := (data ++ [cont_int]).
Notation IHn := (IHn p q).

(* what is known of a definition of the input and of its image *)
Definition def_typed (d : fsdef) : Prop :=
  check_stmt data codata defs (fsdctx d) (fsdbody d) = None /\ NoDup (cids (fsdctx d)) /\
  ub_stmt (cids (fsdctx d)) (fsdbody d) = true /\ ctx_le m0 (fsdctx d) = true /\ ib_stmt m0 (fsdbody d) = true /\
  nc_stmt (cvars (fsdctx d)) (fsdbody d) = true.
Definition def_shrunk (d : fsdef) : Prop :=
  exists lbl st t st',
    shrink_stmt (fsz (fsdbody d)) (mksenv D codata lbl) (fsdbody d) st = SOk (t, st') /\
    (m0 <= s_max st)%N /\
    find_def q (fsdname d) = Some (mkd (fsdname d) (shrink_context codata (fsdctx d)) t) /\
    lifted_in q st'.

Hypothesis Hdisj : forall n, find_decl data n <> None -> find_decl codata n = None.
Hypothesis Hqfresh : forall d, In d (pdefs q) -> pfresh (ids (dctx d)) (dbody d) = true.
Hypothesis Hqnames : forall d, In d (pdefs q) -> find_def q (dname d) = Some d.
Hypothesis Hdefs : forall d, In d defs -> def_typed d /\ def_shrunk d.

Lemma inv_nil : forall st, (m0 <= s_max st)%N -> inv p [] (fun x => x) (fun x => x) st.
Proof.
  intros st H. constructor; auto; try (cbn; constructor); try (intros ? []).
Qed.

(* a definition body started in the environment of its parameters *)
Lemma def_sim : forall n, FLn p q n -> forall d vs avs e' ae' ,
  In d defs -> vrels p q n (fsdctx d) vs avs ->
  CoreSem.cbind (cvars (fsdctx d)) vs [] = Some e' ->
  forall t, find_def q (fsdname d) = Some (mkd (fsdname d) (shrink_context codata (fsdctx d)) t) ->
  bind (vars (shrink_context codata (fsdctx d))) avs = Some ae' ->
  forall out r, CoreSem.crun n P (CoreSem.Run (CoreSem.fs2c_stmt (fsdbody d)) e') out = r -> good r ->
  exists m, exec_named m q ae' t out = r.
Proof.
  intros n FL d vs avs e' ae' Hd Hv Hcb t Hfind Hbind out r Hrun Hg.
  destruct (Hdefs d Hd) as [(Hck & Hnd & Hub & Hcl & Hib & Hnc) (lbl & st & t0 & st' & Hsh & Hm & Hf0 & Hlift)].
  rewrite Hfind in Hf0. injection Hf0 as <-.
  assert (Hdq : In (mkd (fsdname d) (shrink_context codata (fsdctx d)) t) (pdefs q)) by (unfold find_def in Hfind; apply find_some in Hfind; tauto).
  pose proof (Hqfresh _ Hdq) as Hpf. cbn [dctx dbody] in Hpf.
  assert (Hids : forall i, In i (cids (fsdctx d)) -> ~ In i (cids (@nil cbinding)) /\ (i <= m0)%N).
  { intros i Hi. split; [intros [] | eapply ctx_le_ids; eauto]. }
  pose proof (inv_push_list p (fsdctx d) [] _ _ st (inv_nil st Hm) Hnd Hids) as Hinv. rewrite app_nil_r in Hinv.
  assert (He : erel p q n (fun x => occurs x (fsdbody d)) (fun x => (fun y => y) ((fun y => y) x))
                 (ids (shrink_context codata (fsdctx d))) (fsdctx d) e' ae').
  { pose proof (erel_push_list p q n (fun _ => True) (fun x => occurs x (fsdbody d)) (fun x => x) (fun x => x) [] [] [] [] ltac:(constructor)
                  ltac:(intros b []) (fsdctx d) vs (vars (shrink_context codata (fsdctx d))) avs e' ae') as H.
    rewrite !app_nil_r in H. eapply erel_weaken; [apply H | apply le_n | auto | ]; auto.
    - rewrite <- ids_vars, ids_shrink_context. exact Hnd.
    - rewrite vars_shrink_context. unfold cvars. rewrite map_map. reflexivity.
    - intros i Hi. apply in_rev_append in Hi as [Hi|[]]. rewrite ids_vars. exact Hi. }
  rewrite <- (rn_id (fsdbody d)) in Hsh at 2.
  destruct (FL (fsdbody d) _ lbl (fsdctx d) _ _ st t st' _ e' ae' Hinv Hck Hub Hib Hnc Hsh Hpf Hlift He _ _ Hrun Hg) as [m Hm'].
  rewrite arn_id in Hm'. exists m. exact Hm'.
Qed.


Lemma fl_call : forall n, IHn n -> forall f args, FLs p q n (FsCall f args).
Proof.
  intros n IH f args. start. cbn [rn_stmt shrink_step] in Hsh. unfold shrink_identifier in Hsh. invsh Hsh.
  cbn [check_stmt] in Hck. destruct (find (fun d => cident_eqb (fsdname d) f) defs) as [d|] eqn:Hfd; [|discriminate Hck].
  pose proof (find_some _ _ Hfd) as [Hd Hname]. apply cident_eqb_eq in Hname.
  cbn [CoreSem.fs2c_stmt] in Hrun. core_step Hrun Hg n.
  apply start_args_eval in Hrun as (n1 & vs & Hle & Hvs & Hrun); [|exact Hg].
  cbn [CoreSem.finish_args] in Hrun. rewrite cfind_def_P in Hrun. unfold find_fsdef in Hrun. rewrite Hfd in Hrun.
  cbn [option_map CoreSem.fs2c_def cdctx cdbody] in Hrun.
  destruct (CoreSem.cbind (cvars (fsdctx d)) vs []) as [e'|] eqn:Ecb; [|exfalso; eapply cont_stuck; eauto].
  cbn [cont] in Hrun.
  assert (Hneed : forall b, In b args -> occurs (cbvar b) (FsCall f args)) by (intros b Hb; cbn [occurs]; now apply occ_args).
  destruct (args_rel p q _ _ _ _ _ _ _ _ He (inv_nd _ _ _ _ _ Hinv) _ _ _ Hck Hneed Hvs) as (avs & Hlk & Hrel).
  destruct (Hdefs d Hd) as [_ (lbl' & std & td & std' & _ & _ & Hfind & _)]. rewrite Hname in Hfind.
  destruct (vrels_length _ _ _ _ _ _ Hrel) as [_ Hla].
  destruct (bind_total (vars (shrink_context codata (fsdctx d))) avs) as [ae' Hbind].
  { rewrite vars_shrink_context. unfold cvars. rewrite map_length. lia. }
  rewrite <- Hname in Hfind.
  destruct (def_sim n1 (IH n1 ltac:(lia)) d vs avs e' ae' Hd ltac:(eapply vrels_le; [|exact Hrel]; lia) Ecb td Hfind Hbind _ _ Hrun Hg) as [m Hm].
  exists (S m). cbn [arn exec_named]. rewrite Hname in Hfind. rewrite Hfind. cbn [dctx dbody].
  rewrite vars_arn_shrink_rn, Hlk, Hbind. exact Hm.
Qed.

Theorem FL_all : forall n, FLn p q n.
Proof.
  induction n as [n IH] using lt_wf_ind. intros s. destruct s as [pr ty k|so a b t e|nl a nx|f args|v].
  - destruct pr as [c1 v1 t1|z|a o b|c1 v1 s1 t1|c1 x1 args1 t1|c1 cls1 t1];
    destruct k as [c2 v2 t2|z2|a2 o2 b2|c2 v2 s2 t2|c2 x2 args2 t2|c2 cls2 t2];
    (* on the 18 pairs of term forms that [shrink_cut] has no arm for, shrinking fails and the statement is void *)
    try (unfold FLs; intros k lbl G rho th st t st' A e ae Hinv Hck Hub Hib Hnc Hsh; destruct k as [|k]; [discriminate Hsh|];
         rewrite shrink_stmt_S in Hsh; cbn [rn_stmt rn_term shrink_step shrink_cut] in Hsh; discriminate Hsh).
    + (* XVar, XVar *) apply fl_unknown; auto.
    + (* XVar, Mu *) apply fl_ren_mut; auto.
    + (* XVar, Xtor *) apply fl_invoke_dtor; auto.
    + (* XVar, XCase *) apply fl_switch_case; auto.
    + (* Lit, XVar *) apply fl_lit_var; auto.
    + (* Lit, Mu *) apply fl_lit_mu; auto.
    + (* Op, XVar *) apply fl_op_var; auto.
    + (* Op, Mu *) apply fl_op_mu; auto.
    + (* Mu, XVar *) apply fl_ren_mu; auto.
    + (* Mu, Mu *) destruct ty; [apply fl_crit_i64; auto | apply fl_crit_decl; auto].
    + (* Mu, Xtor *) apply fl_let_dtor; auto.
    + (* Mu, XCase *) apply fl_create_case; auto.
    + (* Xtor, XVar *) apply fl_invoke_ctor; auto.
    + (* Xtor, Mu *) apply fl_let_ctor; auto.
    + (* Xtor, XCase *) apply fl_known_ctor; auto.
    + (* XCase, XVar *) apply fl_switch_cocase; auto.
    + (* XCase, Mu *) apply fl_create_cocase; auto.
    + (* XCase, Xtor *) apply fl_known_dtor; auto.
  - apply fl_ifc; auto.
  - apply fl_print; auto.
  - apply fl_call; auto.
  - apply fl_exit; auto.
Qed.
End Top.

Lemma lookup_b_none : forall G x, AxCheck.lookup_b G x = None -> ~ In x (ids G).
Proof.
  induction G as [|b G IH]; intros x H; [intros []|]. simpl in *.
  destruct (N.eqb (idn (bvar b)) x) eqn:E; [discriminate|]. apply N.eqb_neq in E. intros [Hx|Hx]; [contradiction | now apply IH in H].
Qed.
Lemma fresh_for_notin : forall G v, AxCheck.fresh_for G v = None -> negb (memN (idn v) (ids G)) = true.
Proof.
  intros G v H. unfold AxCheck.fresh_for in H. destruct (AxCheck.lookup_b G (idn v)) eqn:E; [discriminate|].
  apply lookup_b_none in E. apply negb_true_iff. now apply memN_false.
Qed.
Lemma fresh_all_list : forall c G, AxCheck.fresh_all G c = None -> fresh_list (ids G) (ids c) = true.
Proof.
  induction c as [|b r IH]; intros G H; [reflexivity|]. simpl in H. apply seq_none in H as [H1 H2].
  simpl. rewrite (fresh_for_notin _ _ H1). apply (IH (b :: G) H2).
Qed.

Lemma check_pfresh : forall ts ds t G, AxCheck.check_stmt ts ds G t = None -> pfresh (ids G) t = true.
Proof.
  intros ts ds.
  apply (stmt_ind' (fun t => forall G, AxCheck.check_stmt ts ds G t = None -> pfresh (ids G) t = true)); intros; try reflexivity.
  - (* Let *) simpl in H0. destruct (AxCheck.type_of ts _ t) as [[e|] [d|]]; try discriminate.
    destruct (AxCheck.find_xtor d tag); [|discriminate]. apply seq_none in H0 as [_ H0]. apply seq_none in H0 as [H1 H2].
    simpl. rewrite (fresh_for_notin _ _ H1). apply (H _ H2).
  - (* Switch *) rewrite pfresh_switch. simpl in H0. destruct (AxCheck.type_of ts _ t) as [[e|] [d|]]; try discriminate.
    apply seq_none in H0 as [_ H0]. destruct (_ && _); [discriminate|].
    revert H0. generalize (txtors d). unfold pfresh_cls.
    induction H as [|[[x c] b] r Hb _ IH]; intros xs H0; [reflexivity|]. destruct xs as [|sg xr]; [discriminate|].
    apply seq_none in H0 as [_ H0]. apply seq_none in H0 as [_ H0]. apply seq_none in H0 as [H1 H0]. apply seq_none in H0 as [H2 H3].
    simpl in *. rewrite (fresh_all_list _ _ H1), (IH _ H3), andb_true_r, andb_true_l.
    rewrite <- (Hb _ H2). apply pfresh_ext. apply memN_ext_of_in. intros i. unfold ids. rewrite map_app, in_rev_append, in_app_iff. tauto.
  - (* Create *) destruct env as [ce|]; [reflexivity|]. rewrite pfresh_create. simpl in H1.
    destruct (AxCheck.type_of ts _ t) as [[e|] [d|]]; try discriminate.
    apply seq_none in H1 as [H1 H2]. apply seq_none in H2 as [H2 H3].
    rewrite (fresh_for_notin _ _ H2). pose proof (H0 _ H3) as Hn. change (ids (mkb v Cns t :: G)) with (idn v :: ids G) in Hn. rewrite Hn, !andb_true_r.
    destruct (_ && _); [discriminate|].
    revert H1. generalize (txtors d). unfold pfresh_cls.
    induction H as [|[[x c] b] r Hb _ IH]; intros xs H1; [reflexivity|]. destruct xs as [|sg xr]; [discriminate|].
    apply seq_none in H1 as [_ H1]. apply seq_none in H1 as [_ H1]. apply seq_none in H1 as [H4 H1]. apply seq_none in H1 as [H5 H6].
    simpl in *. rewrite (fresh_all_list _ _ H4), (IH _ H6), andb_true_r, andb_true_l.
    rewrite <- (Hb _ H5). apply pfresh_ext. apply memN_ext_of_in. intros i. unfold ids. rewrite map_app, in_rev_append, in_app_iff. tauto.
  - (* Literal *) simpl in H0. apply seq_none in H0 as [H1 H2]. simpl. rewrite (fresh_for_notin _ _ H1). apply (H _ H2).
  - (* Op *) simpl in H0. apply seq_none in H0 as [_ H0]. apply seq_none in H0 as [_ H0]. apply seq_none in H0 as [H1 H2].
    simpl. rewrite (fresh_for_notin _ _ H1). apply (H _ H2).
  - (* Print *) simpl in H0. apply seq_none in H0 as [_ H0]. simpl. now apply H.
  - (* IfC *) simpl in H1. apply seq_none in H1 as [_ H1]. apply seq_none in H1 as [_ H1]. apply seq_none in H1 as [H2 H3].
    simpl. rewrite (H _ H2), (H0 _ H3). reflexivity.
Qed.

Lemma check_def_pfresh : forall ts ds d, AxCheck.check_def ts ds d = None -> pfresh (ids (dctx d)) (dbody d) = true.
Proof.
  intros ts ds d H. unfold AxCheck.check_def in H.
  assert (Hs : AxCheck.check_stmt ts ds (dctx d) (dbody d) = None).
  { destruct (AxCheck.is_lifted_name (dname d)).
    - destruct (negb _); [discriminate|]. destruct (AxCheck.minus_n _ _); [|discriminate].
      apply seq_none in H as [_ H]. apply seq_none in H as [_ H]. exact H.
    - apply seq_none in H as [_ H]. apply seq_none in H as [_ H]. exact H. }
  eapply check_pfresh; eauto.
Qed.
Lemma wt_ax_defs : forall q, AxCheck.wt_ax q = true ->
  (forall d, In d (pdefs q) -> pfresh (ids (dctx d)) (dbody d) = true) /\
  AxCheck.nodup_by ident_eqb (map dname (pdefs q)) = true.
Proof.
  intros q H. unfold AxCheck.wt_ax in H. destruct (AxCheck.check_prog q) eqn:E; [discriminate|]. clear H.
  unfold AxCheck.check_prog in E. apply seq_none in E as [_ E]. apply seq_none in E as [E1 E2].
  split.
  - revert E2. generalize (pdefs q) at 2 3. intros l. induction l as [|d0 r IH]; intros E2 d Hd; [contradiction|].
    apply seq_none in E2 as [E3 E4]. destruct Hd as [<-|Hd]; [eapply check_def_pfresh; eauto | now apply IH].
  - unfold AxCheck.ensure in E1. destruct (AxCheck.nodup_by _ _); [reflexivity | discriminate].
Qed.
Lemma ident_eqb_eq : forall a b : ident, ident_eqb a b = true <-> a = b.
Proof. exact cident_eqb_eq. Qed.
Lemma find_def_nodup : forall l d, AxCheck.nodup_by ident_eqb (map dname l) = true -> In d l ->
  find (fun d' => ident_eqb (dname d') (dname d)) l = Some d.
Proof.
  induction l as [|d0 r IH]; intros d Hn Hin; [contradiction|]. simpl in *. apply andb_prop in Hn as [Hn1 Hn2].
  destruct Hin as [->|Hin].
  - now rewrite (proj2 (ident_eqb_eq _ _) eq_refl).
  - destruct (ident_eqb (dname d0) (dname d)) eqn:E; [|now apply IH].
    apply ident_eqb_eq in E. apply negb_true_iff in Hn1. exfalso.
    assert (existsb (ident_eqb (dname d0)) (map dname r) = true); [|congruence].
    apply existsb_exists. exists (dname d). split; [apply in_map; exact Hin | now apply ident_eqb_eq].
Qed.

Inductive defs_rel (data' codata : list ctydecl) : list fsdef -> list cident -> N -> list def -> Prop :=
| DR_nil : forall used m, defs_rel data' codata [] used m []
| DR_cons : forall d r used m t st' rest,
    shrink_stmt (fsz (fsdbody d)) (mksenv data' codata (fst (fsdname d))) (fsdbody d) (mksst m [] used) = SOk (t, st') ->
    defs_rel data' codata r (s_used st') (s_max st') rest ->
    defs_rel data' codata (d :: r) used m (mkd (fsdname d) (shrink_context codata (fsdctx d)) t :: s_lifted st' ++ rest).
Lemma shrink_defs_rel : forall data' codata ds used m acc out m',
  shrink_defs ds data' codata used m acc = SOk (out, m') ->
  exists rest, out = frev acc ++ rest /\ defs_rel data' codata ds used m rest.
Proof.
  induction ds as [|d r IH]; intros used m acc out m' H; simpl in H.
  - inv H. exists []. split; [now rewrite app_nil_r | constructor].
  - unfold shrink_def in H. destruct (shrink_stmt _ _ (fsdbody d) _) as [[body st]|] eqn:E; [|discriminate]. cbn [sbind] in H.
    apply IH in H as (rest & -> & Hr). unfold shrink_identifier in *.
    exists (mkd (fsdname d) (shrink_context codata (fsdctx d)) body :: s_lifted st ++ rest). split.
    + unfold frev. rewrite !rev_append_rev, !app_nil_r, rev_app_distr, rev_involutive, <- app_assoc. reflexivity.
    + constructor; auto.
Qed.

(* the fragment predicates names_ok, main_int, frag2_prog: Sem/FsFrag2.v *)

Section Prog.
Variable p : fsprog.
Notation data := (fspdata p).
Notation codata := (fspcodata p).
Notation defs := (fspdefs p).
Notation m0 := (fspmax p).
Notation D := (data ++ [cont_int]).

Lemma defs_rel_facts : forall ds used m rest, defs_rel D codata ds used m rest ->
  (forall d, In d ds -> ib_stmt m0 (fsdbody d) = true) -> (m0 <= m)%N ->
  forall d, In d ds -> exists used_d m_d t st',
    shrink_stmt (fsz (fsdbody d)) (mksenv D codata (fst (fsdname d))) (fsdbody d) (mksst m_d [] used_d) = SOk (t, st') /\
    (m0 <= m_d)%N /\ In (mkd (fsdname d) (shrink_context codata (fsdctx d)) t) rest /\
    (forall d', In d' (s_lifted st') -> In d' rest).
Proof.
  intros ds used m rest H. induction H as [used m|d r used m t st' rest Hsh Hr IH]; intros Hib Hm d0 Hin; [contradiction|].
  assert (Hmono : (m <= s_max st')%N).
  { pose proof Hsh as Hsh'. rewrite <- (rn_id (fsdbody d)) in Hsh' at 2.
    apply shrink_stmt_mono in Hsh' as [H1 _]. exact H1. }
  destruct Hin as [<-|Hin].
  - exists used, m, t, st'. split; [exact Hsh|]. split; [exact Hm|]. split; [now left|].
    intros d' Hd'. right. apply in_or_app. now left.
  - destruct (IH (fun d1 H1 => Hib d1 (or_intror H1)) ltac:(lia) d0 Hin) as (u & md & t0 & s0 & F1 & F2 & F3 & F4).
    exists u, md, t0, s0. split; [exact F1|]. split; [exact F2|]. split; [right; apply in_or_app; now right|].
    intros d' Hd'. right. apply in_or_app. right. now apply F4.
Qed.

Lemma nodup_by_NoDup : forall l : list N, FsCheck.nodup_by N.eqb l = true -> NoDup l.
Proof.
  induction l as [|x r IH]; intros H; [constructor|]. simpl in H. apply andb_prop in H as [H1 H2]. constructor; [|now apply IH].
  intros Hin. apply negb_true_iff in H1. assert (existsb (N.eqb x) r = true); [|congruence].
  apply existsb_exists. exists x. split; [exact Hin | apply N.eqb_refl].
Qed.
Lemma check_defs_nodup : forall l d, check_defs p l = None -> In d l -> FsCheck.nodup_by N.eqb (cids (fsdctx d)) = true.
Proof.
  induction l as [|a r IH]; intros d Hc Hin; [contradiction|]. simpl in Hc. apply seq_none in Hc as [A Bc]. apply fensure_none in A.
  destruct (check_stmt _ _ _ (fsdctx a) (fsdbody a)); [discriminate|]. destruct Hin as [->|Hin]; [exact A | now apply IH].
Qed.

Lemma vrels_ints : forall q n ctx zs, forallb int_binding ctx = true -> List.length ctx = List.length zs ->
  vrels p q n ctx (map (fun z => BP (PInt z)) zs) (map VInt zs).
Proof.
  intros q n. induction ctx as [|b r IH]; intros [|z zs] Hi Hl; try discriminate; [constructor|].
  simpl in Hi. apply andb_prop in Hi as [Hb Hr]. unfold int_binding in Hb. apply andb_prop in Hb as [Hc Ht].
  apply cchi_eqb_eq in Hc. apply cty_eqb_eq in Ht. cbn [map]. constructor; [rewrite Hc, Ht; constructor | apply IH; auto].
Qed.
Lemma cbind_length : forall xs vs e e', CoreSem.cbind xs vs e = Some e' -> List.length xs = List.length vs.
Proof.
  induction xs as [|x r IH]; intros [|v vr] e e' H; simpl in H; try discriminate; [reflexivity|].
  destruct (CoreSem.cbind r vr e) eqn:E; [|discriminate]. simpl. f_equal. eapply IH; eauto.
Qed.

Theorem shrink_correct_fragment2 : forall q n args o,
  frag2_prog p = true -> wt_fs p = true -> unique_binders p = true -> ids_bounded p = true ->
  shrink_prog p = SOk q -> AxCheck.wt_ax q = true ->
  CoreSem.run_fs n p args = o -> good o ->
  exists m, run_named m q args = o.
Proof.
  intros q n args o Hfrag Hwt Hub Hib Hsh Hax Hrun Hg.
  unfold frag2_prog in Hfrag. apply andb_prop in Hfrag as [Hnames Hmain].
  unfold wt_fs in Hwt. destruct (check_fs p) eqn:Hc; [discriminate|]. clear Hwt. unfold check_fs in Hc.
  apply seq_none in Hc as [C0 Hc]. apply seq_none in Hc as [C1 Hc]. apply seq_none in Hc as [C2 Hc].
  apply seq_none in Hc as [C3 Hc]. apply seq_none in Hc as [C4 C5]. apply fensure_none in C1.
  pose proof (nodup_types_disjoint _ _ C1) as Hdisj.
  destruct (wt_ax_defs q Hax) as [Hqfresh Hqnd].
  assert (Hqnames : forall d, In d (pdefs q) -> find_def q (dname d) = Some d).
  { intros d Hd. unfold find_def. now apply find_def_nodup. }
  unfold shrink_prog in Hsh. destruct (_ || _); [discriminate|].
  destruct (shrink_defs defs D codata (map fsdname defs) m0 []) as [[defs' mx]|] eqn:Esd; [|discriminate]. cbn [sbind] in Hsh.
  apply shrink_defs_rel in Esd as (rest & Eout & Hrel). cbn [frev rev_append app] in Eout. subst defs'.
  injection Hsh as <-. cbn [pdefs] in *.
  assert (Hibd : forall d, In d defs -> ctx_le m0 (fsdctx d) = true /\ ib_stmt m0 (fsdbody d) = true).
  { intros d Hd. unfold ids_bounded in Hib. rewrite forallb_forall in Hib. apply Hib in Hd.
    apply andb_prop in Hd as [Hd H2]. apply andb_prop in Hd as [_ H1]. auto. }
  set (q := mkp rest (map (shrink_declaration codata) D ++ map (shrink_declaration codata) codata) mx) in *.
  assert (Hdefs : forall d, In d defs -> def_typed p d /\ def_shrunk p q d).
  { intros d Hd. split.
    - unfold def_typed. split; [eapply check_defs_in; eauto|].
      split; [apply nodup_by_NoDup; eapply check_defs_nodup; eauto|].
      unfold unique_binders in Hub. rewrite forallb_forall in Hub. pose proof (Hub d Hd) as Hu. apply andb_prop in Hu as [_ Hu].
      split; [exact Hu|]. destruct (Hibd d Hd) as [H1 H2]. split; [exact H1|]. split; [exact H2|].
      unfold names_ok in Hnames. rewrite forallb_forall in Hnames. now apply Hnames.
    - destruct (defs_rel_facts _ _ _ _ Hrel (fun d0 H0 => proj2 (Hibd d0 H0)) (N.le_refl _) d Hd) as (u & md & t & st' & F1 & F2 & F3 & F4).
      exists (fst (fsdname d)), (mksst md [] u), t, st'. split; [exact F1|]. split; [exact F2|]. split; [|exact F4].
      apply (Hqnames _ F3). }
  unfold CoreSem.run_fs, CoreSem.run_core in Hrun. cbn [CoreSem.fs2c_prog cpdefs] in Hrun.
  destruct defs as [|d0 ds] eqn:Edefs; [cbn [map] in Hrun; subst o; exfalso; exact Hg|].
  cbn [map] in Hrun. unfold CoreSem.centry_env in Hrun. cbn [CoreSem.fs2c_def cdctx cdbody] in Hrun.
  destruct (forallb _ (fsdctx d0)); [|subst o; exfalso; exact Hg].
  destruct (CoreSem.cbind (cvars (fsdctx d0)) (map (fun z => BP (PInt z)) args) []) as [e'|] eqn:Ecb; [|subst o; exfalso; exact Hg].
  inversion Hrel as [|d r u m t0 st0 rest0 Hsh0 Hr0]; subst.
  unfold run_named. cbn [pdefs]. unfold entry_env. cbn [dctx dbody].
  pose proof (cbind_length _ _ _ _ Ecb) as Hlen. unfold cvars in Hlen. rewrite !map_length in Hlen.
  destruct (bind_total (vars (shrink_context codata (fsdctx d0))) (map VInt args)) as [ae' Hbind].
  { rewrite vars_shrink_context. unfold cvars. rewrite !map_length. exact Hlen. }
  unfold q at 1. cbn [pdefs dctx dbody]. rewrite Hbind.
  assert (Hd0 : In d0 defs) by (rewrite Edefs; now left).
  assert (Hfind : find_def q (fsdname d0) = Some (mkd (fsdname d0) (shrink_context codata (fsdctx d0)) t0)).
  { apply (Hqnames (mkd (fsdname d0) (shrink_context codata (fsdctx d0)) t0)). now left. }
  unfold main_int in Hmain. rewrite Edefs in Hmain.
  rewrite <- Edefs in Hdefs.
  eapply (def_sim p q Hqfresh Hdefs n (FL_all p q Hdisj Hqfresh Hqnames Hdefs n) d0 _ _ e' ae' Hd0); eauto.
  apply vrels_ints; auto.
Qed.
End Prog.
