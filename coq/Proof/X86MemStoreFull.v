(* `x_store` refines `Heap.alloc_object` (Proof/X86MemStoreChain.v, x86_store_ok), with what the forward
   simulation of Let / Create needs in addition:
     - the DATA words (offset +8 of a field slot) and the pointer words of every stored variable, addressed
       through the chain of the new object (`waddrs`, Proof/X86HeapDefs.v);
     - the chain of the new object consists of the acquired blocks (`alloc_object_acq`, Proof/X86HeapAcq.v);
     - a frame: every heap word that is not a block header and lies outside the new blocks is unchanged,
       and so is every stack word outside the spill slots of the frame (`stack_frame`, Proof/X86StackFrame.v).
   blk_words              the field slots of one block after a round of store_fields;
   chain_holds            the field slots of a (partial) chain hold the variables stored so far, right-aligned;
   x86_store_block_full   one round (x86_store_block_ok, the words of the block as `blk_words`);
   x86_store_fields_other_full   the continuation blocks;
   x86_store_frame        the theorem (what Proof/X86HSimStore.v uses); x86_store_full is its projection without the
                          stack frame. *)
From Coq Require Import List ZArith NArith String Bool Lia FMapPositive.
From SCC Require Import Base.Sexp Lang.AxSyn Sem.AxSem Model.Backend Model.X86 Sem.X86Sem Generated.Constants
  Proof.X86State Proof.X86Sel Proof.X86Mem Proof.X86MemFrame Proof.X86MemStore Proof.X86MemStoreChain
  Proof.X86MemLoadChain Proof.X86HeapDefs Proof.X86HeapAcq Proof.X86StackFrame.
From SCC Require Model.Heap.
Import ListNotations.
Open Scope list_scope.
Open Scope Z_scope.

(* bs (variable i at position pos0 + i) right-aligned in the cap field slots of block rv, zeros before *)
Definition blk_words (w : Z -> Z) (val : N -> Z) (pos0 : nat) (bs : list binding) (rv : Z) (cap : nat) : Prop :=
  (forall i b, nth_error bs i = Some b ->
     w (rv + 16 + 16 * Z.of_nat (cap - List.length bs + i)) = fst_slot val (pos0 + i) b /\
     w (rv + 16 + 16 * Z.of_nat (cap - List.length bs + i) + 8) = snd_slot val (pos0 + i)) /\
  (forall j, (j < cap - List.length bs)%nat -> w (rv + 16 + 16 * Z.of_nat j) = 0).

(* the slots of the chain of kk + 1 blocks headed by p hold `done` (variable i at position pos0 + i),
   right-aligned, zeros before *)
Definition chain_holds (w : Z -> Z) (val : N -> Z) (pos0 : nat) (done : list binding) (kk : nat) (p : Z) : Prop :=
  (forall i b, nth_error done i = Some b ->
     w (nth (List.length (waddrs kk w p) - List.length done + i) (waddrs kk w p) 0) = fst_slot val (pos0 + i) b /\
     w (nth (List.length (waddrs kk w p) - List.length done + i) (waddrs kk w p) 0 + 8) = snd_slot val (pos0 + i)) /\
  (forall j, (j < List.length (waddrs kk w p) - List.length done)%nat -> w (nth j (waddrs kk w p) 0) = 0) /\
  (List.length done <= 2 * kk + 3)%nat.

(* chains read the link words of their blocks only *)
Lemma wchain_congr w w' : forall k p,
  (forall b, In b (wblocks k w p) -> w' (b + 48) = w (b + 48)) ->
  wblocks k w' p = wblocks k w p /\ waddrs k w' p = waddrs k w p.
Proof.
  induction k as [|k IH]; intros p H; cbn [wblocks waddrs]; [auto|].
  assert (E : w' (p + 48) = w (p + 48)) by (apply H; cbn [wblocks]; left; reflexivity).
  rewrite E. destruct (IH (w (p + 48))) as [A B].
  - intros b Hb. apply H. cbn [wblocks]. right. exact Hb.
  - rewrite A, B. auto.
Qed.

Lemma waddrs_in w : forall k p a, In a (waddrs k w p) ->
  exists b, In b (wblocks k w p) /\ (a = b + 16 \/ a = b + 32 \/ a = b + 48).
Proof.
  induction k as [|k IH]; intros p a H; cbn [waddrs wblocks app] in *.
  - exists p. split; [left; reflexivity|]. destruct H as [<-|[<-|[<-|[]]]]; auto.
  - destruct H as [<-|[<-|H]].
    + exists p. split; [left; reflexivity|auto].
    + exists p. split; [left; reflexivity|auto].
    + destruct (IH _ _ H) as (b & Hb & Ha). exists b. split; [right; exact Hb|exact Ha].
Qed.

Lemma chain_holds_congr w w' val pos0 done kk p :
  chain_holds w val pos0 done kk p ->
  (forall b, In b (wblocks kk w p) -> forall i, 0 < i < 64 -> w' (b + i) = w (b + i)) ->
  chain_holds w' val pos0 done kk p.
Proof.
  intros (H1 & H2 & H3) Hw.
  destruct (wchain_congr w w' kk p) as [_ EA]; [intros b Hb; apply Hw; [exact Hb|lia]|].
  unfold chain_holds. rewrite EA.
  assert (Hin : forall j, (j < List.length (waddrs kk w p))%nat ->
            w' (nth j (waddrs kk w p) 0) = w (nth j (waddrs kk w p) 0) /\
            w' (nth j (waddrs kk w p) 0 + 8) = w (nth j (waddrs kk w p) 0 + 8)).
  { intros j Hj. destruct (waddrs_in w kk p _ (nth_In _ 0 Hj)) as (b & Hb & Ha).
    destruct Ha as [-> |[-> | ->]]; rewrite <- !Z.add_assoc; split; apply Hw; auto; lia. }
  pose proof (waddrs_length w kk p) as LA.
  split; [|split; [|exact H3]].
  - intros i b Hi. assert (Hil : (i < List.length done)%nat) by (apply nth_error_Some; congruence).
    destruct (Hin (List.length (waddrs kk w p) - List.length done + i)%nat ltac:(lia)) as [A B].
    rewrite A, B. now apply H1.
  - intros j Hj. destruct (Hin j ltac:(lia)) as [A _]. rewrite A. now apply H2.
Qed.

Lemma nth_slots2 rv l j : (j < 2)%nat -> nth j (rv + 16 :: rv + 32 :: l) 0 = rv + 16 + 16 * Z.of_nat j.
Proof. intros H. destruct j as [|[|j]]; cbn [nth]; lia. Qed.
Lemma nth_slots3 rv j : (j < 3)%nat -> nth j [rv + 16; rv + 32; rv + 48] 0 = rv + 16 + 16 * Z.of_nat j.
Proof. intros H. destruct j as [|[|[|j]]]; cbn [nth]; lia. Qed.

(* the last block of the object (written first) *)
Lemma chain_holds_last w val pos0 nx rv :
  blk_words w val pos0 nx rv 3 -> (List.length nx <= 3)%nat -> chain_holds w val pos0 nx 0 rv.
Proof.
  intros (B1 & B2) Hl. unfold chain_holds. cbn [waddrs List.length]. split; [|split; [|lia]].
  - intros i b Hi. assert (Hil : (i < List.length nx)%nat) by (apply nth_error_Some; congruence).
    rewrite nth_slots3 by lia. now apply B1.
  - intros j Hj. rewrite nth_slots3 by lia. now apply B2.
Qed.

(* a further block in front of a full chain *)
Lemma chain_holds_ext w val pos0 nx done kk link rv :
  chain_holds w val (pos0 + List.length nx) done kk link -> List.length done = (2 * kk + 3)%nat ->
  w (rv + 48) = link -> blk_words w val pos0 nx rv 2 -> (List.length nx <= 2)%nat ->
  chain_holds w val pos0 (nx ++ done) (S kk) rv.
Proof.
  intros (H1 & H2 & H3) Hfull Hlink (B1 & B2) Hl. unfold chain_holds. cbn [waddrs app]. rewrite Hlink.
  pose proof (waddrs_length w kk link) as LA. cbn [List.length]. rewrite app_length, LA in *.
  split; [|split; [|lia]].
  - intros i b Hi. destruct (Nat.lt_ge_cases i (List.length nx)) as [Hlt|Hge].
    + rewrite nth_error_app1 in Hi by exact Hlt.
      replace (S (S (2 * kk + 3)) - (List.length nx + List.length done) + i)%nat with (2 - List.length nx + i)%nat by lia.
      rewrite nth_slots2 by lia. now apply B1.
    + rewrite nth_error_app2 in Hi by exact Hge.
      replace (S (S (2 * kk + 3)) - (List.length nx + List.length done) + i)%nat
        with (S (S (2 * kk + 3 - List.length done + (i - List.length nx))))%nat by lia.
      cbn [nth]. replace (pos0 + i)%nat with (pos0 + List.length nx + (i - List.length nx))%nat by lia.
      now apply H1.
  - intros j Hj. rewrite nth_slots2 by lia. apply B2. lia.
Qed.

Lemma chain_acq_congr : forall f rest link a b,
  st_eqB a b -> chain_pre f rest link a -> chain_acq f rest link a = chain_acq f rest link b.
Proof.
  induction f as [|f IH]; intros rest link a b E Pre; [reflexivity|].
  destruct rest as [|x r]; [reflexivity|].
  cbn [chain_acq chain_pre] in *. destruct Pre as [A Pre].
  destruct (alloc_congr a b (Heap.pad 2 (Heap.lastn 2 (x :: r)) ++ [link]) E A) as [Ef Es].
  rewrite <- Ef. rewrite (IH _ _ _ _ Es Pre). destruct E as (E1 & _). now rewrite E1.
Qed.

(* the fields of a block in the two ways of writing their addresses *)
Lemma stored_blk_words w w0 val pos0 bs rv cap :
  (N.of_nat (List.length bs) <= cap)%N -> stored w w0 val pos0 bs rv cap -> blk_words w val pos0 bs rv (N.to_nat cap).
Proof.
  intros Hlen (S1 & S2 & _). split.
  - intros i b Hi. assert (Hil : (i < List.length bs)%nat) by (apply nth_error_Some; congruence).
    destruct (S1 i b Hi) as [A1 A2]. rewrite field_offset_val in A1, A2. cbn [tnum_n] in A1, A2.
    split; [rewrite <- A2|rewrite <- A1]; f_equal; lia.
  - intros j Hj. specialize (S2 (N.of_nat j) ltac:(lia)). rewrite field_offset_val in S2. cbn [tnum_n] in S2.
    rewrite <- S2. f_equal. lia.
Qed.

Section Full.
Variable im : image.

Lemma x86_store_block_full pos bp to_store remaining lc c0 sv s sp F val link :
  let E := List.length remaining in
  let n := List.length to_store in
  let cap := (3 - bp_n bp)%N in
  let rl := rest_len n cap in
  let k := (2 * N.of_nat (E + rl))%N in
  let acq := fst (acquire_block (tpos k) lc) in
  to_store <> [] ->
  link_code bp remaining to_store = Ok c0 ->
  store_values (rev (skipn rl to_store)) (remaining ++ firstn rl to_store) HEAP cap = Ok sv ->
  (k < MAXPOS)%N ->
  code_at im pos (c0 ++ sv ++ acq) -> labels_at im pos (c0 ++ sv ++ acq) ->
  frame_ok s sp -> vals_ok s sp val E to_store ->
  (bp = Other -> lget s sp (tpos (2 * N.of_nat (E + n))) = Some link) ->
  acq_ok (abs_heap F s) ->
  let P := Heap.pad (N.to_nat cap) (Heap.lastn (N.to_nat cap) (fsts val E to_store)) ++ (match bp with Other => [link] | Last => [] end) in
  let res := Heap.alloc P (abs_heap F s) in
  let rv := Heap.heap (abs_heap F s) in
  exists s', steps im pos s (pnth pos (List.length (c0 ++ sv ++ acq))) s' /\
    st_eqB (abs_heap (Heap.frontier (snd res)) s') (snd res) /\
    lget s' sp (tpos k) = Some (fst res) /\ is_blk (fst res) /\
    (forall k', (k' < MAXPOS)%N -> k' <> k -> lget s' sp (tpos k') = lget s sp (tpos k')) /\
    out s' = out s /\ frame_ok s' sp /\
    fst res = rv /\
    blk_words (hword s') val (E + rl) (skipn rl to_store) rv (N.to_nat cap) /\
    (bp = Other -> hword s' (rv + 48) = link) /\
    (forall a, ~ is_blk a -> a < rv \/ rv + 64 <= a -> hword s' a = hword s a) /\
    stack_frame s s' sp.
Proof.
  intros E n cap rl k acq Hne Hc0 Hsv Hk HC HL FR V Hlink AOK P res rv.
  destruct (x86_store_block_ok im pos bp to_store remaining lc c0 sv s sp F val link Hne Hc0 Hsv Hk HC HL FR V Hlink AOK)
    as (s' & ST & EQ & Rr & Bb & Oth & Out & FR' & Erv & St & Rest).
  exists s'. repeat (split; [assumption|]). split; [|exact Rest].
  assert (Hlen : (N.of_nat (List.length (skipn rl to_store)) <= cap)%N).
  { rewrite skipn_length. apply next_len_le. unfold cap. destruct bp; cbn; auto. }
  exact (stored_blk_words _ _ _ _ _ _ _ Hlen St).
Qed.

(* the words of earlier blocks are not touched by a round that fills another block *)
Lemma frame_blocks (w w' : Z -> Z) rv bl :
  (forall a, ~ is_blk a -> a < rv \/ rv + 64 <= a -> w' a = w a) ->
  is_blk rv -> Forall is_blk bl -> ~ In rv bl ->
  forall b, In b bl -> forall i, 0 < i < 64 -> w' (b + i) = w (b + i).
Proof.
  intros Hfr Hrv Hbl Hnin b Hb i Hi. rewrite Forall_forall in Hbl. pose proof (Hbl b Hb) as Hbb.
  apply Hfr; [now apply not_blk_off|].
  assert (Hne : b <> rv) by (intros ->; contradiction).
  destruct (is_blk_apart b rv Hbb Hrv Hne); lia.
Qed.

Lemma x86_store_fields_other_full : forall fuel to_store remaining lc cs lc' pos s sp F val link fa done kk,
  store_fields fuel to_store remaining Other lc = Ok (cs, lc') ->
  (List.length to_store < fuel)%nat -> (List.length to_store <= fa)%nat ->
  code_at im pos cs -> labels_at im pos cs -> frame_ok s sp ->
  vals_ok s sp val (List.length remaining) to_store ->
  lget s sp (tpos (2 * N.of_nat (List.length remaining + List.length to_store))) = Some link ->
  chain_pre fa (fsts val (List.length remaining) to_store) link (abs_heap F s) ->
  let acq := chain_acq fa (fsts val (List.length remaining) to_store) link (abs_heap F s) in
  let bl := wblocks kk (hword s) link in
  NoDup acq -> Forall is_blk bl -> (forall b, In b acq -> ~ In b bl) ->
  chain_holds (hword s) val (List.length remaining + List.length to_store) done kk link ->
  (to_store <> [] -> List.length done = (2 * kk + 3)%nat) ->
  let res := Heap.store_other fa (fsts val (List.length remaining) to_store) link (abs_heap F s) in
  let K := (kk + nbo (List.length to_store))%nat in
  exists s', steps im pos s (pnth pos (List.length cs)) s' /\
    st_eqB (abs_heap (Heap.frontier (snd res)) s') (snd res) /\
    lget s' sp (tpos (2 * N.of_nat (List.length remaining))) = Some (fst res) /\
    (forall k, (k < 2 * N.of_nat (List.length remaining))%N -> lget s' sp (tpos k) = lget s sp (tpos k)) /\
    out s' = out s /\ frame_ok s' sp /\
    wblocks K (hword s') (fst res) = rev acq ++ bl /\
    Forall is_blk (rev acq ++ bl) /\
    chain_holds (hword s') val (List.length remaining) (to_store ++ done) K (fst res) /\
    (forall a, ~ is_blk a -> (forall b, In b acq -> a < b \/ b + 64 <= a) -> hword s' a = hword s a) /\
    stack_frame s s' sp.
Proof.
  induction fuel as [|fuel IH]; intros to_store remaining lc cs lc' pos s sp F val link fa done kk Hsf Hfuel Hfa HC HL FR V Hlink Pre acq bl
    ND Hbl Hdisj CH Hfull res K; [lia|].
  set (E := List.length remaining) in *.
  destruct to_store as [|x r].
  - cbn [store_fields] in Hsf. inversion Hsf; subst cs lc'. cbn [List.length] in Hlink, CH. rewrite Nat.add_0_r in Hlink, CH.
    assert (Hres : res = (link, abs_heap F s)) by (unfold res; destruct fa; reflexivity).
    assert (Hacq : acq = []) by (unfold acq; destruct fa; reflexivity).
    assert (HK : K = kk) by (unfold K; cbn [List.length]; change (nbo 0) with 0%nat; lia).
    rewrite Hres, Hacq, HK. cbn [fst snd abs_heap Heap.frontier List.length pnth rev app].
    exists s. split; [apply steps_refl|]. split; [apply st_eqB_refl|]. repeat (split; [auto; fail|]). apply stack_frame_refl.
  - set (to_store := x :: r) in *. set (n := List.length to_store) in *.
    destruct (store_fields_unfold fuel to_store remaining Other lc cs lc' ltac:(discriminate) Hsf) as (c0 & sv & c3 & Hc0 & Hsv & Hk & Hsf3 & ->).
    change (3 - bp_n Other)%N with 2%N in *. fold n in Hk, Hsv, Hsf3, HC, HL |- *.
    set (rl := rest_len n 2) in *.
    assert (Hn1 : (1 <= n)%nat) by (unfold n, to_store; cbn [List.length]; lia).
    assert (Hrl : rl = (n - 2)%nat) by apply rest_len_val.
    assert (Lfirst : List.length (firstn rl to_store) = rl) by (rewrite firstn_length; fold n; lia).
    assert (Lnext : List.length (skipn rl to_store) = (n - rl)%nat) by (rewrite skipn_length; reflexivity).
    assert (Lrr : List.length (remaining ++ firstn rl to_store) = (E + rl)%nat) by (rewrite app_length, Lfirst; reflexivity).
    rewrite Lrr in *.
    destruct fa as [|fa]; [unfold n, to_store in Hfa; cbn [List.length] in Hfa; lia|].
    set (fields := fsts val E to_store) in *.
    assert (Hfne : fields <> []) by (unfold fields, to_store; cbn [fsts]; discriminate).
    assert (Lfields : List.length fields = n) by apply fsts_length.
    set (P := Heap.pad 2 (Heap.lastn 2 fields) ++ [link]) in *.
    assert (Pre' : acq_ok (abs_heap F s) /\ chain_pre fa (Heap.butlastn 2 fields) (fst (Heap.alloc P (abs_heap F s))) (snd (Heap.alloc P (abs_heap F s)))).
    { cbn [chain_pre] in Pre. destruct fields; [contradiction|]. exact Pre. }
    destruct Pre' as [AOK Pre'].
    assert (Hres : res = Heap.store_other fa (Heap.butlastn 2 fields) (fst (Heap.alloc P (abs_heap F s))) (snd (Heap.alloc P (abs_heap F s))))
      by (unfold res; now rewrite store_other_step).
    assert (Hacq : acq = Heap.heap (abs_heap F s) ::
                     chain_acq fa (Heap.butlastn 2 fields) (fst (Heap.alloc P (abs_heap F s))) (snd (Heap.alloc P (abs_heap F s)))).
    { unfold acq. cbn [chain_acq]. destruct fields; [contradiction|]. reflexivity. }
    rewrite Hres. clear Hres res. rewrite Hacq in ND, Hdisj |- *. clear Hacq acq.
    rewrite !app_assoc in HC, HL. apply code_at_app2 in HC as [HC1 HC3]. apply labels_at_app2 in HL as [HL1 HL3].
    rewrite <- !app_assoc in HC1, HL1. rewrite <- (app_assoc c0 sv) in HC3, HL3.
    destruct (x86_store_block_full pos Other to_store remaining lc c0 sv s sp F val link ltac:(discriminate) Hc0 Hsv Hk HC1 HL1 FR V (fun _ => Hlink) AOK)
      as (s2 & ST2 & EQ2 & Rr & Bb & Oth & Out & FR2 & Erv & BW & LK & Fr2 & SF2).
    specialize (LK eq_refl).
    change (N.to_nat (3 - bp_n Other)) with 2%nat in *. change (3 - bp_n Other)%N with 2%N in *. fold E n rl fields P in ST2, EQ2, Rr, Bb, Oth, Erv, BW.
    set (b := fst (Heap.alloc P (abs_heap F s))) in *. set (a1 := snd (Heap.alloc P (abs_heap F s))) in *.
    set (rv := Heap.heap (abs_heap F s)) in *. rewrite <- Erv in BW, LK, Fr2, ND, Hdisj |- *. clear Erv rv.
    assert (Hbut : Heap.butlastn 2 fields = fsts val E (firstn rl to_store)).
    { unfold Heap.butlastn. rewrite Lfields, fsts_firstn, Hrl. reflexivity. }
    rewrite Hbut in *.
    assert (V2 : vals_ok s2 sp val E (firstn rl to_store)) by (apply (vals_ok_firstn s); [pose proof (firstn_le_length rl to_store); lia|exact Hk|exact Oth|exact V]).
    destruct (store_other_congr fa _ b a1 (abs_heap (Heap.frontier a1) s2) (st_eqB_sym _ _ EQ2) Pre') as (Pre2 & Ef & Es).
    pose proof (chain_acq_congr fa _ b a1 (abs_heap (Heap.frontier a1) s2) (st_eqB_sym _ _ EQ2) Pre') as Eacq.
    set (acq' := chain_acq fa (fsts val E (firstn rl to_store)) b a1) in *.
    (* the chain after this round *)
    assert (Hnin : ~ In b bl) by (apply Hdisj; left; reflexivity).
    assert (Hsame : forall x, In x bl -> forall i, 0 < i < 64 -> hword s2 (x + i) = hword s (x + i))
      by (apply (frame_blocks (hword s) (hword s2) b bl Fr2 Bb Hbl Hnin)).
    destruct (wchain_congr (hword s) (hword s2) kk link) as [EB2 _]; [intros y Hy; apply Hsame; [exact Hy|lia]|].
    assert (Hbl2 : wblocks (S kk) (hword s2) b = b :: bl) by (cbn [wblocks]; rewrite LK, EB2; reflexivity).
    assert (Ldone : List.length done = (2 * kk + 3)%nat) by (apply Hfull; discriminate).
    assert (CH2 : chain_holds (hword s2) val (E + rl) (skipn rl to_store ++ done) (S kk) b).
    { apply (chain_holds_ext _ _ _ _ _ _ link); [|exact Ldone|exact LK|exact BW|rewrite Lnext; lia].
      rewrite Lnext. replace (E + rl + (n - rl))%nat with (E + n)%nat by lia.
      eapply chain_holds_congr; [exact CH|exact Hsame]. }
    rewrite (app_assoc sv), (app_assoc c0).
    destruct (IH (firstn rl to_store) remaining _ c3 lc' _ s2 sp (Heap.frontier a1) val b fa (skipn rl to_store ++ done) (S kk) Hsf3
                ltac:(rewrite Lfirst; unfold n, to_store in *; cbn [List.length] in *; lia)
                ltac:(rewrite Lfirst; unfold n, to_store in *; cbn [List.length] in *; lia) HC3 HL3 FR2 V2)
      as (s3 & ST3 & EQ3 & R3 & Oth3 & Out3 & FR3 & WB3 & FB3 & CH3 & Fr3 & SF3).
    { rewrite Lfirst. exact Rr. }
    { exact Pre2. }
    { fold E. rewrite <- Eacq. inversion ND; assumption. }
    { rewrite Hbl2. apply Forall_cons; [exact Bb|exact Hbl]. }
    { fold E. rewrite <- Eacq, Hbl2. intros y Hy [<-|Hin].
      - inversion ND; contradiction.
      - apply (Hdisj y); [right; exact Hy|exact Hin]. }
    { rewrite Lfirst. exact CH2. }
    { intros Hne'. rewrite app_length, Lnext, Ldone.
      assert (rl <> 0)%nat by (intros H0; rewrite H0 in Hne'; apply Hne'; reflexivity). lia. }
    fold E in EQ3, R3, Oth3, WB3, FB3, CH3, Fr3. rewrite <- Eacq, Hbl2 in WB3, FB3. rewrite <- Eacq in Fr3. rewrite Lfirst in WB3, CH3.
    assert (HK : (kk + nbo n = S kk + nbo rl)%nat) by (rewrite (nbo_step n Hn1), Hrl; lia).
    assert (Hrev : rev (b :: acq') ++ bl = rev acq' ++ b :: bl) by (cbn [rev]; now rewrite <- app_assoc).
    subst K. fold n.
    exists s3. split; [|split; [|split; [|split; [|split; [|split; [|split; [|split; [|split; [|split]]]]]]]]].
    + eapply steps_app_len; eassumption.
    + pose proof Es as (_ & _ & X3 & _). rewrite X3.
      eapply st_eqB_trans; [exact EQ3|apply st_eqB_sym; exact Es].
    + rewrite Ef. exact R3.
    + intros k Hk'. rewrite Oth3 by exact Hk'. apply Oth; lia.
    + congruence.
    + exact FR3.
    + rewrite HK, Ef, Hrev. exact WB3.
    + rewrite Hrev. exact FB3.
    + rewrite HK, Ef. rewrite app_assoc, firstn_skipn in CH3. exact CH3.
    + intros a Ha Hout. rewrite Fr3; [apply Fr2; [exact Ha|apply Hout; left; reflexivity]|exact Ha|].
      intros y Hy. apply Hout. right. exact Hy.
    + eapply stack_frame_trans; [exact SF2|exact SF3].
Qed.

Theorem x86_store_frame pos to_store remaining lc cs lc' s sp F val :
  x_store to_store remaining lc = Ok (cs, lc') -> to_store <> [] ->
  code_at im pos cs -> labels_at im pos cs -> frame_ok s sp ->
  vals_ok s sp val (List.length remaining) to_store ->
  let E := List.length remaining in let n := List.length to_store in let k := Heap.nlinks n in
  let fields := fsts val E to_store in
  alloc_object_pre fields (abs_heap F s) ->
  NoDup (alloc_object_acq fields (abs_heap F s)) ->
  let res := Heap.alloc_object fields (abs_heap F s) in
  exists s', steps im pos s (pnth pos (List.length cs)) s' /\
    st_eqB (abs_heap (Heap.frontier (snd res)) s') (snd res) /\
    lget s' sp (tpos (2 * N.of_nat E)) = Some (fst res) /\
    (forall q, (q < 2 * N.of_nat E)%N -> lget s' sp (tpos q) = lget s sp (tpos q)) /\
    out s' = out s /\ frame_ok s' sp /\
    wblocks k (hword s') (fst res) = rev (alloc_object_acq fields (abs_heap F s)) /\
    Forall is_blk (wblocks k (hword s') (fst res)) /\
    (let A := waddrs k (hword s') (fst res) in
     (forall i b, nth_error to_store i = Some b ->
        let a := nth (List.length A - n + i) A 0 in
        hword s' a = fst_slot val (E + i) b /\ hword s' (a + 8) = snd_slot val (E + i)) /\
     (forall j, (j < List.length A - n)%nat -> hword s' (nth j A 0) = 0)) /\
    (forall a, ~ is_blk a -> (forall b, In b (alloc_object_acq fields (abs_heap F s)) -> a < b \/ b + 64 <= a) ->
       hword s' a = hword s a) /\
    stack_frame s s' sp.
Proof.
  intros Hx Hne HC HL FR V E n k fields Pre ND res. unfold x_store in Hx. fold n in Hx.
  destruct (store_fields_unfold n to_store remaining Last lc cs lc' Hne Hx) as (c0 & sv & c3 & Hc0 & Hsv & Hk & Hsf3 & ->).
  change (3 - bp_n Last)%N with 3%N in *. fold n in Hk, Hsv, Hsf3, HC, HL |- *.
  set (rl := rest_len n 3) in *.
  assert (Hrl : rl = (n - 3)%nat) by apply rest_len_val.
  assert (Lfirst : List.length (firstn rl to_store) = rl) by (rewrite firstn_length; fold n; lia).
  assert (Lnext : List.length (skipn rl to_store) = (n - rl)%nat) by (rewrite skipn_length; reflexivity).
  assert (Hn : (1 <= n)%nat) by (unfold n; destruct to_store; [contradiction|cbn; lia]).
  assert (Lrr : List.length (remaining ++ firstn rl to_store) = (E + rl)%nat) by (rewrite app_length, Lfirst; reflexivity).
  rewrite Lrr in *.
  assert (Lfields : List.length fields = n) by apply fsts_length.
  assert (Hfne : fields <> []) by (intros Hf; rewrite Hf in Lfields; cbn in Lfields; lia).
  set (P := Heap.pad 3 (Heap.lastn 3 fields)) in *.
  assert (Pre' : acq_ok (abs_heap F s) /\ chain_pre n (Heap.butlastn 3 fields) (fst (Heap.alloc P (abs_heap F s))) (snd (Heap.alloc P (abs_heap F s)))).
  { unfold alloc_object_pre in Pre. rewrite Lfields in Pre. destruct fields; [contradiction|]. exact Pre. }
  destruct Pre' as [AOK Pre'].
  assert (Hres : res = Heap.store_other n (Heap.butlastn 3 fields) (fst (Heap.alloc P (abs_heap F s))) (snd (Heap.alloc P (abs_heap F s)))).
  { unfold res, Heap.alloc_object. rewrite Lfields. fold P. destruct fields; [contradiction|]. destruct (Heap.alloc P (abs_heap F s)). reflexivity. }
  assert (Hacq : alloc_object_acq fields (abs_heap F s) = Heap.heap (abs_heap F s) ::
                   chain_acq n (Heap.butlastn 3 fields) (fst (Heap.alloc P (abs_heap F s))) (snd (Heap.alloc P (abs_heap F s)))).
  { unfold alloc_object_acq. rewrite Lfields. fold P. destruct fields; [contradiction|]. reflexivity. }
  rewrite Hres. clear Hres res. rewrite Hacq in ND |- *. clear Hacq.
  rewrite !app_assoc in HC, HL. apply code_at_app2 in HC as [HC1 HC3]. apply labels_at_app2 in HL as [HL1 HL3].
  rewrite <- !app_assoc in HC1, HL1. rewrite <- (app_assoc c0 sv) in HC3, HL3.
  destruct (x86_store_block_full pos Last to_store remaining lc c0 sv s sp F val 0 Hne Hc0 Hsv Hk HC1 HL1 FR V ltac:(discriminate) AOK)
    as (s2 & ST2 & EQ2 & Rr & Bb & Oth & Out & FR2 & Erv & BW & _ & Fr2 & SF2).
  change (N.to_nat (3 - bp_n Last)) with 3%nat in *. change (3 - bp_n Last)%N with 3%N in *. rewrite app_nil_r in *.
  fold E n rl fields P in ST2, EQ2, Rr, Bb, Oth, Erv, BW.
  set (b := fst (Heap.alloc P (abs_heap F s))) in *. set (a1 := snd (Heap.alloc P (abs_heap F s))) in *.
  set (rv := Heap.heap (abs_heap F s)) in *. rewrite <- Erv in BW, Fr2, ND |- *. clear Erv rv.
  assert (Hbut : Heap.butlastn 3 fields = fsts val E (firstn rl to_store)).
  { unfold Heap.butlastn. rewrite Lfields. unfold fields. rewrite fsts_firstn, Hrl. reflexivity. }
  rewrite Hbut in *.
  assert (V2 : vals_ok s2 sp val E (firstn rl to_store)) by (apply (vals_ok_firstn s); [pose proof (firstn_le_length rl to_store); lia|exact Hk|exact Oth|exact V]).
  destruct (store_other_congr n _ b a1 (abs_heap (Heap.frontier a1) s2) (st_eqB_sym _ _ EQ2) Pre') as (Pre2 & Ef & Es).
  pose proof (chain_acq_congr n _ b a1 (abs_heap (Heap.frontier a1) s2) (st_eqB_sym _ _ EQ2) Pre') as Eacq.
  set (acq' := chain_acq n (fsts val E (firstn rl to_store)) b a1) in *.
  assert (CH2 : chain_holds (hword s2) val (E + rl) (skipn rl to_store) 0 b)
    by (apply chain_holds_last; [exact BW|rewrite Lnext; lia]).
  rewrite (app_assoc sv), (app_assoc c0).
  destruct (x86_store_fields_other_full n (firstn rl to_store) remaining _ c3 lc' _ s2 sp (Heap.frontier a1) val b n (skipn rl to_store) 0 Hsf3
              ltac:(rewrite Lfirst; lia) ltac:(rewrite Lfirst; lia) HC3 HL3 FR2 V2)
    as (s3 & ST3 & EQ3 & R3 & Oth3 & Out3 & FR3 & WB3 & FB3 & CH3 & Fr3 & SF3).
  { rewrite Lfirst. exact Rr. }
  { exact Pre2. }
  { fold E. rewrite <- Eacq. inversion ND; assumption. }
  { cbn [wblocks]. apply Forall_cons; [exact Bb|apply Forall_nil]. }
  { fold E. rewrite <- Eacq. cbn [wblocks]. intros y Hy [<-|[]]. inversion ND; contradiction. }
  { rewrite Lfirst. exact CH2. }
  { intros Hne'. rewrite Lnext.
    assert (rl <> 0)%nat by (intros H0; rewrite H0 in Hne'; apply Hne'; reflexivity). lia. }
  fold E in EQ3, R3, Oth3, WB3, FB3, CH3, Fr3. rewrite <- Eacq in WB3, FB3, Fr3. cbn [wblocks] in WB3, FB3.
  rewrite Lfirst in WB3, CH3. rewrite firstn_skipn in CH3. cbn [Nat.add] in WB3, CH3.
  assert (HK : k = nbo rl) by (unfold k; rewrite nlinks_nbo, Hrl; reflexivity).
  rewrite <- HK, <- Ef in WB3, CH3.
  assert (Hrev : rev (b :: acq') = rev acq' ++ [b]) by reflexivity.
  exists s3. split; [|split; [|split; [|split; [|split; [|split; [|split; [|split; [|split; [|split]]]]]]]]].
  + eapply steps_app_len; eassumption.
  + pose proof Es as (_ & _ & X3 & _). rewrite X3.
    eapply st_eqB_trans; [exact EQ3|apply st_eqB_sym; exact Es].
  + rewrite Ef. exact R3.
  + intros q Hq. rewrite Oth3 by exact Hq. apply Oth; lia.
  + congruence.
  + exact FR3.
  + rewrite Hrev. exact WB3.
  + rewrite WB3. exact FB3.
  + destruct CH3 as (C1 & C2 & _). cbv zeta. fold n in C1, C2. split; [exact C1|exact C2].
  + intros a Ha Hout. rewrite Fr3; [apply Fr2; [exact Ha|apply Hout; left; reflexivity]|exact Ha|].
    intros y Hy. apply Hout. right. exact Hy.
  + eapply stack_frame_trans; [exact SF2|exact SF3].
Qed.

Theorem x86_store_full pos to_store remaining lc cs lc' s sp F val :
  x_store to_store remaining lc = Ok (cs, lc') -> to_store <> [] ->
  code_at im pos cs -> labels_at im pos cs -> frame_ok s sp ->
  vals_ok s sp val (List.length remaining) to_store ->
  let E := List.length remaining in let n := List.length to_store in let k := Heap.nlinks n in
  let fields := fsts val E to_store in
  alloc_object_pre fields (abs_heap F s) ->
  NoDup (alloc_object_acq fields (abs_heap F s)) ->
  let res := Heap.alloc_object fields (abs_heap F s) in
  exists s', steps im pos s (pnth pos (List.length cs)) s' /\
    st_eqB (abs_heap (Heap.frontier (snd res)) s') (snd res) /\
    lget s' sp (tpos (2 * N.of_nat E)) = Some (fst res) /\
    (forall q, (q < 2 * N.of_nat E)%N -> lget s' sp (tpos q) = lget s sp (tpos q)) /\
    out s' = out s /\ frame_ok s' sp /\
    wblocks k (hword s') (fst res) = rev (alloc_object_acq fields (abs_heap F s)) /\
    Forall is_blk (wblocks k (hword s') (fst res)) /\
    (let A := waddrs k (hword s') (fst res) in
     (forall i b, nth_error to_store i = Some b ->
        let a := nth (List.length A - n + i) A 0 in
        hword s' a = fst_slot val (E + i) b /\ hword s' (a + 8) = snd_slot val (E + i)) /\
     (forall j, (j < List.length A - n)%nat -> hword s' (nth j A 0) = 0)) /\
    (forall a, ~ is_blk a -> (forall b, In b (alloc_object_acq fields (abs_heap F s)) -> a < b \/ b + 64 <= a) ->
       hword s' a = hword s a).
Proof.
  intros Hx Hne HC HL FR V E n k fields Pre ND res.
  destruct (x86_store_frame pos to_store remaining lc cs lc' s sp F val Hx Hne HC HL FR V Pre ND)
    as (s' & ST & EQ & R & Oth & Out & FR' & WB & FB & CH & Fr & _).
  exists s'. repeat (split; [assumption|]). assumption.
Qed.
End Full.

Print Assumptions x86_store_full.
