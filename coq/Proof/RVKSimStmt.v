(* C08, forward simulation for HEAP statements: the statements that do not touch the heap
   (Literal, Op, IfC, Exit, Call) under the relation `hrel` of Proof/RVKSimRel.v.  The proofs are those of
   Proof/RVSimStmt.v (the selection lemmas of Proof/RVSel.v, nothing re-proved); the heap words and the
   allocator registers are untouched, every live register of every other variable is preserved.  The
   counterpart of Proof/X86HSimStmt.v (RISC-V has no print statement and no frame). *)
From Coq Require Import List ZArith NArith String Bool Lia FMapPositive.
From SCC Require Import Base.Sexp Lang.AxSyn Sem.AxSem Sem.AxHeap Model.ParMoves Model.Backend Model.RV Sem.RVSem Sem.RVWf
     Model.Linearize Model.LinCheck Generated.Constants Proof.LinBasics
     Proof.RVSel Proof.SubstGraph Proof.SubstBackends Proof.RVSubst Proof.RVSimAddr Proof.BackendInv Proof.RVSimRel
     Proof.RVSimStmt Proof.RVHeapAbs Proof.RVHDefs Proof.RVHMem Proof.RVHBridge Proof.RVKSimRel.
From SCC Require Model.Heap Proof.X86HSimStmt.
Import ListNotations.
Open Scope Z_scope.
Open Scope list_scope.

Section HSim.
Variable im : image.
Variable types : list tydecl.
Variable CLO : Z -> ident -> list clause -> ctx -> Prop.
Local Notation hrel := (hrel types CLO).

(* a register write into the second register of a new last integer position *)
Lemma hr_push_int c he hs s v z t :
  hrel c he hs s -> NoDup (ids (c ++ [mkb v Ext I64])) -> rtpos Snd (List.length c) = Ok t ->
  hrel (c ++ [mkb v Ext I64]) (he ++ [(v, VInt z, 0)]) hs (rset s t (Some z)).
Proof.
  intros R ND T. apply (hrel_push types CLO c he hs s _ (mkb v Ext I64) (VInt z) 0 R ND).
  - intros a. apply hword_rset.
  - intros r NR _. apply rget_rset_other. intros E. subst r. exact (NR Snd T).
  - eapply hv_int; eauto. apply rget_rset_same. apply rtpos_regs in T. tauto.
Qed.

Theorem hsim_literal c he hs s n v tv pc :
  hrel c he hs s -> NoDup (ids (c ++ [mkb v Ext I64])) ->
  rvt (c ++ [mkb v Ext I64]) (idn v) = Ok tv ->
  at_code im pc (r_load_immediate tv n) ->
  exists s', star im pc s (padd pc 1) s' /\
             hrel (c ++ [mkb v Ext I64]) (he ++ [(v, VInt n, 0)]) hs s'.
Proof.
  intros R ND TV CA. apply (rvt_fresh c (mkb v Ext I64) tv ND) in TV.
  exists (rset s tv (Some n)). split; [|now apply hr_push_int].
  eapply star_next; [exact CA|reflexivity].
Qed.

Lemma hop_temps c he hs s a b v x y tv ta tb :
  hrel c he hs s -> NoDup (ids (c ++ [mkb v Ext I64])) ->
  lookup_int (erase_env he) a = Some x -> lookup_int (erase_env he) b = Some y ->
  rvt (c ++ [mkb v Ext I64]) (idn v) = Ok tv ->
  rvt (c ++ [mkb v Ext I64]) (idn a) = Ok ta -> rvt (c ++ [mkb v Ext I64]) (idn b) = Ok tb ->
  rtpos Snd (List.length c) = Ok tv /\ rget s ta = Some x /\ rget s tb = Some y.
Proof.
  intros R ND LA LB TV TA TB. apply (rvt_fresh c (mkb v Ext I64) tv ND) in TV.
  pose proof (hrel_operand_app types CLO c _ he hs s a x ta R ND LA TA) as VA.
  pose proof (hrel_operand_app types CLO c _ he hs s b y tb R ND LB TB) as VB. auto.
Qed.

Theorem hsim_op c he hs s a o b v x y z tv ta tb pc :
  hrel c he hs s -> NoDup (ids (c ++ [mkb v Ext I64])) ->
  lookup_int (erase_env he) a = Some x -> lookup_int (erase_env he) b = Some y -> eval_op o x y = OpVal z ->
  rvt (c ++ [mkb v Ext I64]) (idn v) = Ok tv ->
  rvt (c ++ [mkb v Ext I64]) (idn a) = Ok ta -> rvt (c ++ [mkb v Ext I64]) (idn b) = Ok tb ->
  at_code im pc (r_arith o tv ta tb) ->
  exists s', star im pc s (padd pc 1) s' /\
             hrel (c ++ [mkb v Ext I64]) (he ++ [(v, VInt z, 0)]) hs s'.
Proof.
  intros R ND LA LB EV TV TA TB CA.
  destruct (hop_temps c he hs s a b v x y tv ta tb R ND LA LB TV TA TB) as (TV' & VA & VB).
  exists (rset s tv (Some z)). split; [|now apply hr_push_int].
  destruct (rv_arith_step im o tv ta tb s x y VA VB) as (ci & E & ST). rewrite E in CA.
  eapply star_next; [exact CA|]. intros ad. rewrite ST, EV. reflexivity.
Qed.

(* the undefined cases of div and rem: the one instruction reports them *)
Theorem hsim_op_undef c he hs s a o b v x y w tv ta tb :
  hrel c he hs s -> NoDup (ids (c ++ [mkb v Ext I64])) ->
  lookup_int (erase_env he) a = Some x -> lookup_int (erase_env he) b = Some y -> eval_op o x y = OpUndef w ->
  rvt (c ++ [mkb v Ext I64]) (idn v) = Ok tv ->
  rvt (c ++ [mkb v Ext I64]) (idn a) = Ok ta -> rvt (c ++ [mkb v Ext I64]) (idn b) = Ok tb ->
  exists ci, r_arith o tv ta tb = [ci] /\ forall ad, RVSem.step im ad ci s = Undefd w s.
Proof.
  intros R ND LA LB EV TV TA TB.
  destruct (hop_temps c he hs s a b v x y tv ta tb R ND LA LB TV TA TB) as (TV' & VA & VB).
  destruct (rv_arith_step im o tv ta tb s x y VA VB) as (ci & E & ST).
  exists ci. split; [exact E|]. intros ad. rewrite ST, EV. reflexivity.
Qed.

(* IfC: one conditional jump (12 forms: six sorts, one or two operands) *)
Theorem hsim_ifc c he hs s so a b x y thenc elsec lc code lc' pc :
  hrel c he hs s -> lookup_int (erase_env he) a = Some x ->
  match b with Some b => lookup_int (erase_env he) b | None => Some 0 end = Some y ->
  rcs types (IfC so a b thenc elsec) c lc = Ok (code, lc') ->
  placed im pc code ->
  exists c2 lc2 c3,
    code = [jcc so (match rvt c (idn a) with Ok t => t | Err _ => 0%N end)
                   (match b with Some b => match rvt c (idn b) with Ok t => t | Err _ => 0%N end | None => ZERO end) (iflabel lc)]
           ++ c2 ++ [LAB (iflabel lc)] ++ c3 /\
    rcs types elsec c (lc + 1)%N = Ok (c2, lc2) /\ rcs types thenc c lc2 = Ok (c3, lc') /\
    star im pc s (if eval_cmp so x y then padd pc (1 + List.length c2 + 1) else padd pc 1) s.
Proof.
  intros R LA LB CS [CA LO].
  destruct (cs_ifc _ _ _ _ _ _ _ _ _ _ _ CS) as (ta & c1 & c2 & lc2 & c3 & TA & C1 & EL & TH & ->).
  cbn [b_mark rv_backend app b_label] in *. exists c2, lc2, c3. rewrite TA.
  pose proof (hrel_operand types CLO c he hs s a x ta R LA TA) as VA.
  assert (PRE : exists tb, c1 = [jcc so ta tb (iflabel lc)] /\ rget s tb = Some y /\
                 tb = match b with Some b => match rvt c (idn b) with Ok t => t | Err _ => 0%N end | None => ZERO end).
  { destruct b as [b|].
    - destruct C1 as (tb & TB & ->). pose proof (hrel_operand types CLO c he hs s b y tb R LB TB) as VB.
      exists tb. rewrite TB. cbn [b_jcc2 rv_backend]. auto.
    - inversion LB; subst y. exists ZERO. cbn [b_jcc1 rv_backend] in C1. auto. }
  destruct PRE as (tb & -> & VB & <-). split; [reflexivity|]. split; [exact EL|]. split; [exact TH|].
  cbn [app] in CA, LO.
  assert (LL : nth_error (jcc so ta tb (iflabel lc) :: c2 ++ LAB (iflabel lc) :: c3) (1 + List.length c2) = Some (LAB (iflabel lc))).
  { cbn [Nat.add nth_error]. apply nth_error_mid. }
  pose proof (LO _ _ LL) as FL.
  assert (ST : forall ad, RVSem.step im ad (jcc so ta tb (iflabel lc)) s = if eval_cmp so x y then Jump s (padd pc (1 + List.length c2)) else Next s).
  { intros ad. destruct so; cbn [jcc RVSem.step]; unfold branch, need; rewrite VA, VB; cbv iota beta;
      (match goal with |- (if ?g then _ else _) = _ => destruct g end); unfold goto_label; rewrite ?FL; reflexivity. }
  destruct (eval_cmp so x y).
  - eapply star_trans; [eapply star_jump; [exact CA|exact ST]|].
    destruct (CA _ _ LL) as (HC & (ad & HA)).
    eapply star_step; [eapply one_next; [exact HC|exact HA|reflexivity]|].
    rewrite <- padd_succ. change (padd (Pos.succ pc) (1 + List.length c2)) with (padd pc (S (1 + List.length c2))).
    replace (S (1 + List.length c2)) with (1 + List.length c2 + 1)%nat by lia. apply star_refl.
  - eapply star_next; [exact CA|exact ST].
Qed.

(* Exit: the result reaches X10, then control goes to `cleanup` *)
Theorem hsim_exit c he hs s v z lc code lc' pc stop :
  hrel c he hs s -> lookup_int (erase_env he) v = Some z ->
  rcs types (Exit v) c lc = Ok (code, lc') -> at_code im pc code ->
  find_label (labels im) "cleanup" = Some stop ->
  exists s', star im pc s stop s' /\ final_check s' = OExit z /\ same_mem s s'.
Proof.
  intros R LV CS CA FL.
  destruct (cs_exit _ _ _ _ _ _ _ CS) as (tv & TV & -> & _). cbn [b_mark b_mov b_return1 b_jump_label rv_backend app r_mov r_jump_label] in CA.
  pose proof (hrel_operand types CLO c he hs s v z tv R LV TV) as VV.
  exists (rset s RETURN1 (rget s tv)). split; [|split].
  - eapply star_trans; [eapply star_next; [exact CA|reflexivity]|].
    apply at_code_cons in CA as [_ CA].
    eapply (star_jump im _ _ _ _ (rset s RETURN1 (rget s tv))); [exact CA|]. intros ad. cbn [RVSem.step]. unfold goto_label. rewrite FL. reflexivity.
  - unfold final_check. rewrite rget_rset_same by discriminate. now rewrite VV.
  - apply same_mem_rset.
Qed.
End HSim.

(* Call: relabelling by a context of the same kinds *)
Notation ptrs_nth := X86HSimStmt.ptrs_nth.

Notation nth_error_erase := X86HSimStmt.nth_error_erase.

Lemma hbind_rel types CLO c he hs st (c' : ctx) e' :
  hrel types CLO c he hs st -> NoDup (ids c') -> sig_match c c' = true ->
  bind (vars c') (map snd (erase_env he)) = Some e' -> hrel types CLO c' (attach e' (ptrs he)) hs st.
Proof.
  intros R ND SM BD. pose proof (hrel_length R) as LE. destruct R as [Hr Fr HQ Ids ND0 Vals]. split; auto.
  - rewrite attach_erase. unfold env_ids. rewrite <- (map_map fst idn), (SimFrag.bind_ids _ _ _ BD). unfold vars, ids. now rewrite map_map.
  - intros i x v q Hi. destruct (attach_nth _ _ _ _ _ _ Hi) as [He' Eq].
    destruct (SimFrag.bind_nth _ _ _ _ _ _ BD He') as (_ & Hv).
    rewrite nth_error_map in Hv. destruct (nth_error (erase_env he) i) as [[y w]|] eqn:He; [|discriminate]. cbn in Hv. inversion Hv; subst w.
    destruct (nth_error_erase he i y v He) as (q0 & Hh).
    destruct (Vals i y v q0 Hh) as (b & Hb & V). destruct (SimFrag.sig_match_nth c c' i b SM Hb) as (b' & Hb' & K & T).
    exists b'. split; [exact Hb'|]. rewrite Eq, (ptrs_nth he i y v q0 Hh).
    apply (hvrep_kind types CLO st i b b' v q0); [congruence|congruence|exact V].
Qed.
