(* C06, heap statements: the part of the stack that code working on spill slots and heap blocks leaves alone
   (everything but the spill slots of the frame at sp; in particular the words above the spill area, where
   the prologue saved the callee-saved registers and where the return marker sits). *)
From Coq Require Import List ZArith NArith Lia FMapPositive.
From SCC Require Import Model.X86 Sem.X86Sem Proof.X86State Proof.X86Mem.
Open Scope Z_scope.

Definition stack_frame (s s' : xstate) (sp : Z) : Prop :=
  forall k, (forall p, slot_ok p -> k <> key (slot_addr sp p)) -> PM.find k (stack s') = PM.find k (stack s).

Lemma stack_frame_refl s sp : stack_frame s s sp.
Proof. intros k _. reflexivity. Qed.
Lemma stack_frame_trans s1 s2 s3 sp : stack_frame s1 s2 sp -> stack_frame s2 s3 sp -> stack_frame s1 s3 sp.
Proof. intros A B k Hk. rewrite (B k Hk). apply A; exact Hk. Qed.
Lemma stack_frame_eq s s' sp : stack s' = stack s -> stack_frame s s' sp.
Proof. intros E k _. now rewrite E. Qed.
Lemma stack_frame_sbt s s' sp : same_but_temp s s' -> stack_frame s s' sp.
Proof. intros (_ & E & _). now apply stack_frame_eq. Qed.
Lemma stack_frame_rset s sp r v : stack_frame s (rset s r v) sp.
Proof. apply stack_frame_eq. reflexivity. Qed.
Lemma stack_frame_set_flags s sp f : stack_frame s (set_flags s f) sp.
Proof. apply stack_frame_eq. reflexivity. Qed.
Lemma stack_frame_hset s sp a z : stack_frame s (hset s a z) sp.
Proof. apply stack_frame_eq. reflexivity. Qed.
Lemma stack_frame_sset s sp p v : slot_ok p -> stack_frame s (sset s sp p v) sp.
Proof.
  intros P k Hk. specialize (Hk p P). unfold sset; cbn [stack]. destruct v; [apply PM.gso|apply PM.gro]; exact Hk.
Qed.
Lemma stack_frame_lset s sp t v : loc_ok t -> stack_frame s (lset s sp t v) sp.
Proof. destruct t as [r|p]; cbn [lset loc_ok]; intros H; [apply stack_frame_rset|now apply stack_frame_sset]. Qed.
