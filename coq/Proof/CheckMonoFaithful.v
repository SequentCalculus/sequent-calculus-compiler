(* C15, regression analysis: the checker BEFORE fix d524b1f (check_gen false, the instance-order
   defect) on the fragment without type parameters / type arguments: a program
   that satisfies the declarative rules is either accepted or rejected with `Undefined` (T-002) -
   the instance-order defect is the only way in which a well-typed program of the fragment is
   rejected, and no other error variant can be reported for it.  The induction is that of completeness
   (Proof/CheckMonoComplete.v check_term_ran, Proof/CheckMonoProgC.v check_gen_mono_ran, case eager = false). *)
From Coq Require Import List ZArith String Bool Permutation Lia.
From SCC Require Import Base.Sexp Lang.SynUtil Lang.FunSyn Model.Check Sem.FunTyping
  Proof.FunInd Proof.FunEq Proof.CheckAnn Proof.TypingReject Proof.CheckBuild Proof.CheckMono
  Proof.CheckMonoSound Proof.CheckMonoProg Proof.CheckMonoComplete Proof.CheckMonoProgC Proof.CheckDecls.
Import ListNotations.
Open Scope list_scope.

Definition ok_or_undef {X} (r : cres X) (P : X -> Prop) : Prop :=
  (exists x, r = COk x /\ P x) \/ r = CErr EUndefined.

Section Faithful.
  Variable ts : list tdecl.
  Variable fs : list fdef.
  Hypothesis W : mono_world ts fs.

  Definition framed (st : symtab) {X} (r : X * symtab) : Prop :=
    minv (snd r) /\ same_templates st (snd r) /\ grows st (snd r).

  Lemma faithful_of_run : forall t st ctx T,
    mono_term t = true -> mono_ctx ctx = true -> mono_ty T = true -> tables ts fs st -> minv st ->
    ((exists r, check_term_gen false t st ctx T = COk r) \/ check_term_gen false t st ctx T = CErr EUndefined) ->
    ok_or_undef (check_term_gen false t st ctx T) (framed st).
  Proof.
    intros t st ctx T Hm Hc HT Tb I [[[t' st'] Hr]|He]; [|right; assumption].
    left. exists (t', st'). split; [assumption|].
    destruct (check_term_gen_sound ts fs W t false st ctx T t' st' Hm Hc HT Tb I Hr) as [_ [I' [S G]]].
    unfold framed. simpl. auto.
  Qed.
End Faithful.

Theorem check_before_fix_mono : forall p,
  mono_prog p = true -> has_type_b p = true -> (exists q, check_before_fix p = COk q) \/ check_before_fix p = CErr EUndefined.
Proof. intros p Hm Ht. destruct (check_gen_mono_ran false p Hm Ht) as [H|[_ H]]; [left; exact H|right; exact H]. Qed.
