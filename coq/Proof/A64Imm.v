(* AArch64 immediate synthesis is right for every 64-bit value: the arithmetic relating a signed
   64-bit Z to its four half-words, the Z-level meaning of MOVZ/MOVN/MOVK in Sem/A64Sem.v as their
   half-word-level meaning, Model/A64.imm_code as the half-word-level selection of
   Proof/A64ImmHw.v, and from these the theorem on the ISA semantics. *)
From Coq Require Import List ZArith NArith Lia Bool String FMapPositive.
From SCC Require Import Lang.AxSyn Sem.AxSem Model.Backend Model.A64 Sem.A64Sem Proof.A64State Proof.A64ImmHw.
Import ListNotations.
Open Scope Z_scope.

(* every emitted piece has a 16-bit immediate and a half-word index below 4 *)
Definition ins_ok (x : ins) : Prop :=
  match x with IMOVZ imm i | IMOVN imm i | IMOVK imm i => inr16 imm /\ (i < 4)%N end.
Lemma wf_getn t i : wf t -> inr16 (getn t i).
Proof.
  destruct t as [[[a b] c] d]. intros (? & ? & ? & ?). destruct i as [|[[]|[]|]]; assumption.
Qed.
Lemma pieces_ok t invert ignored fd is :
  wf t -> Forall (fun i => (i < 4)%N) is -> Forall ins_ok (pieces t invert ignored fd is).
Proof.
  intros W. revert fd. induction is as [|i r IH]; intros fd H; cbn [pieces]; [constructor|].
  inversion H as [|? ? Hi Hr]; subst.
  pose proof (wf_getn t i W) as G.
  destruct (getn t i =? ignored); [apply IH; auto|].
  destruct fd; [constructor; [split; auto|apply IH; auto]|].
  constructor; [|apply IH; auto].
  destruct invert; cbn [ins_ok]; split; auto. unfold inr16, M16, B16 in *. lia.
Qed.
Lemma hw_load_immediate_pieces_ok t : wf t -> Forall ins_ok (hw_load_immediate t).
Proof.
  intros W. unfold hw_load_immediate.
  destruct (zeros t =? 4)%nat; [repeat constructor; unfold inr16, B16; lia|].
  destruct (ones t =? 4)%nat; [repeat constructor; unfold inr16, B16; lia|].
  apply pieces_ok; auto. repeat constructor.
Qed.


Definition in64 (v : Z) : Prop := - two63 <= v < two63.

Definition split (v : Z) : hw4 := (halfword v 0, halfword v 1, halfword v 2, halfword v 3).

Lemma wf_split v : wf (split v).
Proof.
  unfold split, wf, inr16, halfword, B16. repeat split; apply Z.mod_pos_bound; lia.
Qed.

(* the weights 2^(16 i) of the four half-words, as numerals *)
Ltac pow16 :=
  change (2 ^ (16 * Z.of_N 0)) with 1 in *; change (2 ^ (16 * Z.of_N 1)) with 65536 in *;
  change (2 ^ (16 * Z.of_N 2)) with 4294967296 in *; change (2 ^ (16 * Z.of_N 3)) with 281474976710656 in *.

(* the four half-words are the base-65536 digits of the unsigned reading *)
Lemma join_split v : in64 v -> join (split v) = unsigned v.
Proof.
  unfold in64, join, split, halfword, unsigned, B16, two63, two64. pow16.
  intros H. Z.div_mod_to_equations. lia.
Qed.
Lemma wrap_unsigned v : in64 v -> wrap (unsigned v) = v.
Proof. unfold in64, wrap, unsigned, two63, two64. intros H. Z.div_mod_to_equations. lia. Qed.
Lemma denote_split v : in64 v -> wrap (join (split v)) = v.
Proof. intros H. rewrite join_split by auto. now apply wrap_unsigned. Qed.

Lemma join_range t : wf t -> 0 <= join t < two64.
Proof. destruct t as [[[a b] c] d]. unfold wf, inr16, join, B16, two64. lia. Qed.
Lemma unsigned_wrap u : 0 <= u < two64 -> unsigned (wrap u) = u.
Proof. unfold wrap, unsigned, two63, two64. intros H. Z.div_mod_to_equations. lia. Qed.

(* digit extraction from a joined value *)
Lemma digit_of_join t i : wf t -> (i < 4)%N -> (join t / 2 ^ (16 * Z.of_N i)) mod 65536 = getn t i.
Proof.
  destruct t as [[[a b] c] d]. unfold wf, inr16, join, B16. intros (Ha & Hb & Hc & Hd) Hi.
  destruct (lt4 i Hi) as [->|[->|[->| ->]]]; cbn [getn]; pow16; Z.div_mod_to_equations; lia.
Qed.
Lemma join_setn t i v : (i < 4)%N -> join (setn t i v) = join t - getn t i * 2 ^ (16 * Z.of_N i) + v * 2 ^ (16 * Z.of_N i).
Proof.
  destruct t as [[[a b] c] d]. intros Hi.
  destruct (lt4 i Hi) as [->|[->|[->| ->]]]; cbn [getn setn join]; unfold B16; pow16; lia.
Qed.
Lemma wf_setn t i v : wf t -> inr16 v -> wf (setn t i v).
Proof.
  destruct t as [[[a b] c] d]. intros (Ha & Hb & Hc & Hd) Hv.
  unfold setn; repeat match goal with |- context [match ?x with _ => _ end] => destruct x end; cbn; tauto.
Qed.

Lemma movw_ok_piece imm i : inr16 imm -> (i < 4)%N -> movw_ok imm (16 * Z.of_N i) = true.
Proof.
  unfold inr16, B16, movw_ok. intros [H0 H1] Hi.
  apply Z.leb_le in H0. apply Z.ltb_lt in H1. rewrite H0, H1.
  destruct (lt4 i Hi) as [->|[->|[->| ->]]]; reflexivity.
Qed.

(* the Z-level meaning of the three instructions is the half-word-level meaning *)
Lemma movz_val_hw imm i : inr16 imm -> (i < 4)%N ->
  movz_val imm (16 * Z.of_N i) = wrap (join (setn (0, 0, 0, 0) i imm)).
Proof.
  intros H Hi. unfold movz_val. rewrite join_setn by auto. f_equal.
  destruct (lt4 i Hi) as [->|[->|[->| ->]]]; pow16; unfold join, getn, B16; lia.
Qed.
Lemma movn_val_hw imm i : inr16 imm -> (i < 4)%N ->
  movn_val imm (16 * Z.of_N i) = wrap (join (setn (M16, M16, M16, M16) i (M16 - imm))).
Proof.
  intros H Hi. unfold movn_val. rewrite join_setn by auto.
  (* join (M16,M16,M16,M16) = 2^64 - 1, and wrap is 2^64-periodic *)
  assert (P : forall z, wrap (z + two64) = wrap z).
  { intros z. unfold wrap. replace (z + two64 + two63) with (z + two63 + 1 * two64) by lia.
    now rewrite Z.mod_add by (unfold two64; lia). }
  rewrite <- P. f_equal.
  destruct (lt4 i Hi) as [->|[->|[->| ->]]]; pow16; unfold join, getn, M16, B16, two64; lia.
Qed.
Lemma movk_val_hw t imm i : wf t -> inr16 imm -> (i < 4)%N ->
  movk_val (wrap (join t)) imm (16 * Z.of_N i) = wrap (join (setn t i imm)).
Proof.
  intros W H Hi. unfold movk_val. rewrite unsigned_wrap by (apply join_range; auto).
  rewrite digit_of_join by auto. now rewrite join_setn by auto.
Qed.

(* the model's selection is the half-word-level selection *)
Definition to_acode (r : areg) (x : ins) : acode :=
  match x with
  | IMOVZ imm i => MOVZ r imm (16 * Z.of_N i)
  | IMOVN imm i => MOVN r imm (16 * Z.of_N i)
  | IMOVK imm i => MOVK r imm (16 * Z.of_N i)
  end.

Lemma getn_split v i : (i < 4)%N -> getn (split v) i = halfword v i.
Proof.
  intros Hi. destruct (lt4 i Hi) as [->|[->|[->| ->]]]; reflexivity.
Qed.
Lemma imm_pieces_hw r v invert ignored fd is :
  Forall (fun i => (i < 4)%N) is ->
  imm_pieces r v invert ignored fd is = map (to_acode r) (pieces (split v) invert ignored fd is).
Proof.
  revert fd. induction is as [|i rest IH]; intros fd H; [reflexivity|].
  inversion H as [|? ? Hi Hr]; subst. cbn [imm_pieces pieces]. rewrite getn_split by auto.
  destruct (halfword v i =? ignored); [apply IH; auto|].
  destruct fd; cbn [map to_acode]; [now rewrite IH|].
  destruct invert; cbn [map to_acode]; now rewrite IH.
Qed.
Lemma count_zeros v : count_halfwords v 0 = zeros (split v).
Proof.
  unfold count_halfwords, zeros, split. cbn [filter].
  destruct (halfword v 0 =? 0), (halfword v 1 =? 0), (halfword v 2 =? 0), (halfword v 3 =? 0); reflexivity.
Qed.
Lemma count_ones v : count_halfwords v 65535 = ones (split v).
Proof.
  unfold count_halfwords, ones, split, M16. cbn [filter].
  destruct (halfword v 0 =? 65535), (halfword v 1 =? 65535), (halfword v 2 =? 65535), (halfword v 3 =? 65535); reflexivity.
Qed.

Lemma imm_code_hw r v : in64 v -> imm_code r v = map (to_acode r) (hw_load_immediate (split v)).
Proof.
  intros H. unfold imm_code, hw_load_immediate.
  destruct (Z.eqb_spec v 0) as [->|NZ].
  { reflexivity. }
  destruct (zeros (split v) =? 4)%nat eqn:Z4.
  { exfalso. apply NZ. rewrite <- (denote_split v H). rewrite (zeros4 _ Z4). reflexivity. }
  destruct (Z.eqb_spec v (-1)) as [->|NM].
  { reflexivity. }
  destruct (ones (split v) =? 4)%nat eqn:O4.
  { exfalso. apply NM. rewrite <- (denote_split v H). rewrite (ones4 _ O4). reflexivity. }
  rewrite count_zeros, count_ones. fold M16.
  rewrite imm_pieces_hw by (repeat constructor). reflexivity.
Qed.

Section Sem.
Variable im : image.

(* running pieces on register X n: the register follows the half-word machine; nothing else moves *)
Definition only_reg (n : N) (s s' : astate) : Prop :=
  (forall m, m <> n -> xget s' m = xget s m) /\ spv s' = spv s /\ heap s' = heap s /\ stack s' = stack s /\ flags s' = flags s /\ out s' = out s /\ hw s' = hw s.
Lemma only_reg_xset n s v : only_reg n s (xset s n v).
Proof. split; [intros; apply xget_xset_other; congruence|repeat split]. Qed.
Lemma only_reg_trans n s s1 s2 : only_reg n s s1 -> only_reg n s1 s2 -> only_reg n s s2.
Proof.
  intros (A & A1 & A2 & A3 & A4 & A5 & A6) (B0 & B1 & B2 & B3 & B4 & B5 & B6).
  split; [intros m Hm; rewrite B0, A by auto; reflexivity|]. repeat split; congruence.
Qed.

Lemma only_reg_refl n s : only_reg n s s.
Proof. repeat split. Qed.

(* one piece: the register follows the half-word machine; a MOVK needs a defined register
   holding a well-formed value *)
Lemma step_piece n x s t : ins_ok x ->
  (is_movk x -> xget s n = Some (wrap (join t)) /\ wf t) ->
  step im (to_acode (X n) x) s = Next (xset s n (Some (wrap (join (hstep t x))))) /\ wf (hstep t x).
Proof.
  destruct x as [imm i|imm i|imm i]; intros (Hi & Hlt) PRE; cbn [to_acode step hstep];
    rewrite movw_ok_piece by assumption.
  - rewrite movz_val_hw by assumption. split; [reflexivity|].
    apply wf_setn; [unfold wf, inr16, B16; lia|assumption].
  - rewrite movn_val_hw by assumption. split; [reflexivity|].
    apply wf_setn; [unfold wf, inr16, M16, B16; lia|]. unfold inr16, M16, B16 in *; lia.
  - destruct (PRE I) as (G & W). unfold need. cbn [rget]. rewrite G.
    rewrite movk_val_hw by assumption. split; [reflexivity|]. apply wf_setn; assumption.
Qed.

Lemma run_movks n l : Forall ins_ok l -> Forall is_movk l -> forall s t,
  xget s n = Some (wrap (join t)) -> wf t ->
  exists s', run_straight im (map (to_acode (X n)) l) s = MOk s' /\
             xget s' n = Some (wrap (join (hexec l t))) /\ only_reg n s s'.
Proof.
  induction 1 as [|x r Hx _ IH]; intros K s t G W.
  - exists s. split; [reflexivity|]. split; [exact G|apply only_reg_refl].
  - inversion K as [|? ? Kx Kr]; subst.
    destruct (step_piece n x s t Hx (fun _ => conj G W)) as (ST & W1).
    destruct (IH Kr (xset s n (Some (wrap (join (hstep t x))))) _ (xget_xset_same _ _ _) W1) as (s' & E & G' & R).
    exists s'. cbn [map run_straight]. rewrite ST. split; [exact E|]. split; [exact G'|].
    eapply only_reg_trans; [apply only_reg_xset|exact R].
Qed.

Lemma run_pieces n x r s t : Forall ins_ok (x :: r) -> movk_tail (x :: r) ->
  exists s', run_straight im (map (to_acode (X n)) (x :: r)) s = MOk s' /\
             xget s' n = Some (wrap (join (hexec (x :: r) t))) /\ only_reg n s s'.
Proof.
  intros OK (NK & K). inversion OK as [|? ? Hx Hr]; subst.
  destruct (step_piece n x s t Hx (fun M => False_ind _ (NK M))) as (ST & W1).
  destruct (run_movks n r Hr K (xset s n (Some (wrap (join (hstep t x))))) _ (xget_xset_same _ _ _) W1) as (s' & E & G & R).
  exists s'. cbn [map run_straight]. rewrite ST. split; [exact E|]. split; [exact G|].
  eapply only_reg_trans; [apply only_reg_xset|exact R].
Qed.

(* literals into a register: every 64-bit value *)
Theorem a64_imm_code_ok n v s :
  in64 v ->
  exists s', run_straight im (imm_code (X n) v) s = MOk s' /\ xget s' n = Some v /\ only_reg n s s'.
Proof.
  intros H. rewrite imm_code_hw by assumption.
  pose proof (hw_load_immediate_pieces_ok _ (wf_split v)) as OK.
  pose proof (hw_load_immediate_shape (split v)) as SH.
  pose proof (hw_load_immediate_ok (split v) (0, 0, 0, 0)) as R.
  destruct (hw_load_immediate (split v)) as [|x r] eqn:E; [now elim (hw_load_immediate_nonempty (split v))|].
  destruct (run_pieces n x r s (0, 0, 0, 0) OK SH) as (s' & RUN & G & O).
  rewrite R, denote_split in G by assumption. exists s'. auto.
Qed.
End Sem.
