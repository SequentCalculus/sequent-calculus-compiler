(* C08, forward simulation of the RISC-V code generator: whole programs.
   Layout of the code image (`mk_image (cs ++ [LAB "cleanup"])`: every label resolves to its own
   position, given the label uniqueness that `asm_wf` checks on the real output; `cleanup` is the last
   index and nothing lies behind it), the entry state, and the program-level theorems for the integer
   fragment and for the fragment with closures without captured variables. *)
From Coq Require Import List ZArith NArith String Bool Lia FMapPositive.
From SCC Require Import Base.Sexp Lang.AxSyn Sem.AxSem Model.ParMoves Model.Backend Model.RV Sem.RVSem Sem.RVWf
     Model.Linearize Model.LinCheck Model.Capacity Generated.Constants Proof.LinBasics
     Proof.RVSel Proof.SubstGraph Proof.SubstBackends Proof.RVSubst Proof.RVSimAddr Proof.BackendInv Proof.RVSimRel Proof.RVSimStmt
     Proof.RVSimClo Proof.RVSimProg.
From SCC Require Proof.X86SimProgC Proof.X86SimTopC.
Import ListNotations.
Open Scope Z_scope.
Open Scope list_scope.

(* as XR, XS in Proof/RVSimRel.v *)
Module XPC := SCC.Proof.X86SimProgC.
Module XTC := SCC.Proof.X86SimTopC.

Lemma code_small_cleanup cs : code_small cs = true -> code_small (cs ++ [LAB "cleanup"%string]) = true.
Proof. unfold code_small. rewrite size_of_app. cbn [size_of isize]. now rewrite !Z.add_0_r. Qed.

Lemma no_print_defs p : prog_has_print p = false -> forall d, In d (pdefs p) -> stmt_has_print (dbody d) = false.
Proof.
  unfold prog_has_print. intros H d Hd. destruct (stmt_has_print (dbody d)) eqn:E; [|reflexivity].
  assert (existsb (fun d => stmt_has_print (dbody d)) (pdefs p) = true) by (apply existsb_exists; eauto). congruence.
Qed.

(* the layout of the image of any instruction list that passes the assembler-level check (evaluated on
   the REAL output on every run, C14) *)
Theorem rv_image_layout cs :
  asm_wf cs = None ->
  let im := mk_image (cs ++ [LAB "cleanup"%string]) in
  placed im 1%positive (cs ++ [LAB "cleanup"%string]) /\ rimg_ok im /\ duplicate_labels im = [] /\
  find_label (labels im) "cleanup" = Some (padd 1%positive (List.length cs)) /\
  PM.find (Pos.succ (padd 1%positive (List.length cs))) (code im) = None /\
  (forall pc c, PM.find pc (code im) = Some c -> instr_wf c = true) /\
  (forall pc a, PM.find pc (addr_of im) = Some a -> a mod 2 = 0).
Proof.
  intros WF im. set (full := cs ++ [LAB "cleanup"%string]) in *.
  pose proof (asm_wf_labels cs WF) as NDL. fold full in NDL.
  assert (PLF : placed im 1%positive full).
  { pose proof (placed_mk_image [] full []) as H. cbn [app List.length padd] in H. rewrite app_nil_r in H. exact (H NDL). }
  assert (NTH : nth_error full (List.length cs) = Some (LAB "cleanup"%string)) by (unfold full; apply nth_error_mid).
  split; [exact PLF|]. split; [apply mk_image_ok|]. split; [apply duplicate_labels_nil; exact NDL|].
  split; [exact (proj2 PLF _ _ NTH)|]. split; [|split].
  - rewrite <- padd_1', <- padd_add. replace (List.length cs + 1)%nat with (List.length full) by (unfold full; now rewrite app_length).
    apply mk_image_code_end.
  - intros pc c Hc. apply mk_image_code_in in Hc. unfold full in Hc. apply in_app_or in Hc as [Hc|[<-|[]]]; [|reflexivity].
    apply (asm_wf_enc cs WF c Hc).
  - apply mk_image_even.
Qed.

(* the general form: every definition body in `stmt_fr clo`, the entry definition takes integers *)
Theorem rv_codegen_simulates_fr clo p lc cs n lc' args fuel o :
  (forall d, In d (pdefs p) -> stmt_fr clo (dbody d) = true) -> SimFrag.entry_int p = true -> lin_check_prog p = true ->
  rv_compile p lc = Ok (cs, n, lc') -> asm_wf cs = None ->
  (clo = true -> code_small cs = true) ->
  Nat.leb (main_arity p) 14 = true -> List.length args = n ->
  run_linear fuel p args = o -> snd o <> OOutOfFuel ->
  exists outer inner, fst (run_rv outer inner cs args) = o.
Proof.
  intros FRG EI LIN XC WF SM CAP.
  unfold rv_compile in XC. destruct (prog_has_print p) eqn:NP; [discriminate|].
  unfold compile in XC. destruct (pdefs p) as [|d0 rest] eqn:PD; [discriminate|].
  destruct (translate rv_backend (ptypes p) (d0 :: rest) lc) as [[is' lc1]|] eqn:TR; cbn [rbind] in XC; [|discriminate].
  cbn in XC. inversion XC; subst cs n lc'; clear XC.
  intros NARGS RUN G.
  assert (FRG' : forall d, In d (pdefs p) -> stmt_fr clo (dbody d) = true) by (rewrite PD; exact FRG).
  unfold run_linear in RUN. rewrite PD in RUN.
  assert (LEN : List.length args = List.length (dctx d0)) by exact NARGS.
  assert (LE14 : (List.length args <= 14)%nat).
  { unfold main_arity in CAP. rewrite PD in CAP. apply Nat.leb_le in CAP. lia. }
  destruct (SimFrag.bind_total (vars (dctx d0)) (map VInt args)) as (e0 & EE); [unfold vars; rewrite !map_length; auto|].
  unfold entry_env in RUN. rewrite EE in RUN.
  set (full := is' ++ [LAB "cleanup"%string]).
  set (im := mk_image full).
  set (stop := padd 1%positive (List.length is')).
  destruct (rv_image_layout is' WF) as (PLF & IMG & NDUP & STOPL & ENDC & ENC & EVEN).
  fold full in PLF, IMG, NDUP, STOPL, ENDC, ENC, EVEN. fold im in PLF, IMG, NDUP, STOPL, ENDC, ENC, EVEN. fold stop in STOPL, ENDC.
  assert (STOPC : exists l, PM.find stop (code im) = Some (LAB l)).
  { eexists. apply (proj1 (proj1 PLF (List.length is') _ (nth_error_mid _ _ _))). }
  assert (SMALL : clo = true -> forall pc a, PM.find pc (addr_of im) = Some a -> a < 4611686018427387904 - 32).
  { intros C. apply mk_image_small. apply code_small_cleanup. exact (SM C). }
  (* static facts about every definition *)
  assert (LINd : forall d, In d (pdefs p) -> lin_check (sigs_of p) (dctx d) (dbody d) = true).
  { unfold lin_check_prog in LIN. rewrite forallb_forall in LIN. exact LIN. }
  assert (DEFS : forall d, In d (pdefs p) ->
    exists pcd lcd cd lcd', find_label (labels im) (show_ident (dname d) +++ "_") = Some pcd /\
      (exists a, PM.find pcd (code im) = Some (LAB (show_ident (dname d) +++ "_")) /\ PM.find pcd (addr_of im) = Some a) /\
      rcs (ptypes p) (dbody d) (dctx d) lcd = Ok (cd, lcd') /\ placed im (Pos.succ pcd) cd).
  { intros d Hd. rewrite PD in Hd.
    destruct (translate_defs rv_backend (ptypes p) _ _ _ _ TR d Hd) as (pre & lcd & cd & lcd' & post & EQ & CD).
    cbn [b_label rv_backend] in EQ.
    assert (PLd : placed im (padd 1%positive (List.length pre)) (LAB (show_ident (dname d) +++ "_") :: cd)).
    { assert (E : full = pre ++ (LAB (show_ident (dname d) +++ "_") :: cd) ++ (post ++ [LAB "cleanup"%string])).
      { unfold full. rewrite EQ. rewrite <- app_assoc. cbn [app]. rewrite <- app_assoc. reflexivity. }
      rewrite E in PLF. apply placed_app in PLF as [_ PLF]. apply placed_app in PLF as [PLF _]. exact PLF. }
    exists (padd 1%positive (List.length pre)), lcd, cd, lcd'.
    split; [exact (proj2 PLd O _ eq_refl)|]. split.
    - destruct (proj1 PLd O _ eq_refl) as (HC & (a & HA)). eauto.
    - split; [exact CD|]. change (LAB (show_ident (dname d) +++ "_") :: cd) with ([LAB (show_ident (dname d) +++ "_")] ++ cd) in PLd.
      apply placed_app in PLd as [_ PLd]. exact PLd. }
  (* the code of the entry definition comes first *)
  assert (HD : exists c0 lc0 c2, rcs (ptypes p) (dbody d0) (dctx d0) lc = Ok (c0, lc0) /\
                 is' = [LAB (show_ident (dname d0) +++ "_")] ++ c0 ++ c2).
  { cbn [translate] in TR. destruct (rcs (ptypes p) (dbody d0) (dctx d0) lc) as [[c0 lc0]|]; cbn [rbind] in TR; [|discriminate].
    destruct (translate rv_backend (ptypes p) rest lc0) as [[c2 lc2]|]; cbn [rbind] in TR; [|discriminate].
    cbn in TR. inversion TR. exists c0, lc0, c2. split; reflexivity. }
  destruct HD as (c0 & lc0 & c2 & C0 & HD).
  (* the run *)
  assert (FIN : rfin im stop 1%positive (init_state args) o).
  { pose proof PLF as PL1. unfold full in PL1. rewrite HD, <- !app_assoc in PL1.
    apply placed_app in PL1 as [PLl PL1]. apply placed_app in PL1 as [PLc _]. cbn [List.length padd] in PLc.
    assert (D0 : In d0 (pdefs p)) by (rewrite PD; now left).
    eapply (star_rfin im stop STOPC ENDC).
    { eapply star_next; [exact (proj1 PLl)|reflexivity]. }
    subst o.
    assert (I1 : SimFrag.ctx_int (dctx d0) = true) by (unfold SimFrag.entry_int in EI; rewrite PD in EI; exact EI).
    assert (R0 : rrel (clo_ok im p clo) (dctx d0) e0 (init_state args)).
    { eapply entry_rrel; eauto. eapply SimFrag.lin_nodup. exact (LINd d0 D0). }
    eapply (sim_exec im p clo stop IMG EVEN SMALL STOPL STOPC ENDC DEFS LINd FRG') with (c := dctx d0) (lc := lc); eauto. }
  destruct (rfin_run im stop _ _ _ FIN) as (outer & inner & RN).
  exists outer, inner. unfold run_rv. cbv zeta. fold full. fold im. rewrite HD at 1. cbn [app].
  rewrite NDUP, STOPL.
  destruct (Nat.ltb_spec 14 (List.length args)); [lia|]. exact RN.
Qed.

Theorem rv_codegen_simulates_int p lc cs n lc' args fuel o :
  SimFrag.int_frag p = true -> lin_check_prog p = true ->
  rv_compile p lc = Ok (cs, n, lc') -> asm_wf cs = None ->
  Nat.leb (main_arity p) 14 = true -> List.length args = n ->
  run_linear fuel p args = o -> snd o <> OOutOfFuel ->
  exists outer inner, fst (run_rv outer inner cs args) = o.
Proof.
  intros INT LIN XC WF CAP NA RUN G.
  assert (NP : prog_has_print p = false) by (unfold rv_compile in XC; destruct (prog_has_print p); [discriminate|reflexivity]).
  unfold SimFrag.int_frag in INT. rewrite forallb_forall in INT.
  refine (rv_codegen_simulates_fr false p lc cs n lc' args fuel o _ _ LIN XC WF _ CAP NA RUN G).
  - intros d Hd. specialize (INT d Hd). unfold SimFrag.def_int in INT. apply andb_true_iff in INT as [_ SI].
    apply stmt_int_fr; [exact SI|]. exact (no_print_defs p NP d Hd).
  - unfold SimFrag.entry_int. destruct (pdefs p) as [|d0 r]; [reflexivity|].
    specialize (INT d0 (or_introl eq_refl)). unfold SimFrag.def_int in INT. apply andb_true_iff in INT. tauto.
  - discriminate.
Qed.

Theorem rv_codegen_simulates_cf p lc cs n lc' args fuel o :
  SimFrag.cf_frag p = true -> SimFrag.entry_int p = true -> lin_check_prog p = true ->
  rv_compile p lc = Ok (cs, n, lc') -> asm_wf cs = None -> code_small cs = true ->
  Nat.leb (main_arity p) 14 = true -> List.length args = n ->
  run_linear fuel p args = o -> snd o <> OOutOfFuel ->
  exists outer inner, fst (run_rv outer inner cs args) = o.
Proof.
  intros CF EI LIN XC WF SM CAP NA RUN G.
  assert (NP : prog_has_print p = false) by (unfold rv_compile in XC; destruct (prog_has_print p); [discriminate|reflexivity]).
  unfold SimFrag.cf_frag in CF. rewrite forallb_forall in CF.
  refine (rv_codegen_simulates_fr true p lc cs n lc' args fuel o _ EI LIN XC WF (fun _ => SM) CAP NA RUN G).
  intros d Hd. specialize (CF d Hd). unfold SimFrag.def_cf in CF. apply andb_true_iff in CF as [_ SI].
  apply stmt_cf_fr; [exact SI|]. exact (no_print_defs p NP d Hd).
Qed.

(* the argument count is part of the statement: with a different number of arguments the linear
   machine is stuck at entry while the code runs *)
Lemma arity_from_good p lc cs n lc' args fuel z :
  rv_compile p lc = Ok (cs, n, lc') -> run_linear fuel p args = ([], OExit z) -> List.length args = n.
Proof.
  intros XC RUN. unfold rv_compile in XC. destruct (prog_has_print p); [discriminate|].
  unfold compile in XC. unfold run_linear in RUN. destruct (pdefs p) as [|d0 rest]; [discriminate|].
  destruct (translate rv_backend (ptypes p) (d0 :: rest) lc) as [[is' lc1]|]; cbn [rbind] in XC; [|discriminate].
  cbn in XC. inversion XC; subst.
  destruct (entry_env d0 args) as [e0|] eqn:EE; [|discriminate].
  unfold entry_env in EE. apply SimFrag.bind_length in EE. unfold vars in EE. rewrite !map_length in EE. auto.
Qed.

(* the end-to-end statement `rv_codegen_correct` of Props/C08.v for the fragment: runs that end with a result *)
Corollary rv_codegen_correct_cf p lc lc' cs n args z fuel :
  SimFrag.cf_frag p = true -> SimFrag.entry_int p = true -> lin_check_prog p = true ->
  asm_wf cs = None -> code_small cs = true -> Nat.leb (main_arity p) 14 = true ->
  rv_compile p lc = Ok (cs, n, lc') ->
  run_linear fuel p args = ([], OExit z) ->
  exists outer inner, fst (run_rv outer inner cs args) = ([], OExit z).
Proof.
  intros CF EI LIN WF SM CAP XC RUN.
  eapply rv_codegen_simulates_cf; eauto; [eapply arity_from_good; eauto|discriminate].
Qed.
