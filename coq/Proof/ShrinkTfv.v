(* Proof/ShrinkTfv.v (C04, fragment 2) - the free variables `lift` passes (TypedFreeVars with ONE shared
   BTreeSet from which binders are removed) are exactly the renamed variables of the context that occur
   in the statement - for well-typed statements with unique binders and consistent names. *)
From Coq Require Import List ZArith NArith String Bool Lia.
From SCC Require Import Proof.CoreInd.
From SCC Require Import Base.Sexp Lang.SynUtil Lang.CoreSyn Lang.AxSyn Sem.AxSem Sem.FsCheck Model.Shrink
     Proof.ShrinkProof Proof.ShrinkSem Proof.ShrinkRn Proof.ShrinkRel Proof.ShrinkSimBase.
Import ListNotations.
Open Scope list_scope.

Lemma bs_insert_in_r : forall b x l, x = b \/ In x l -> In x (bs_insert b l).
Proof.
  induction l as [|y r IH]; simpl; intros H.
  - destruct H as [->|[]]. now left.
  - destruct (cbinding_compare b y) eqn:E.
    + apply cbinding_compare_eq in E. subst y. destruct H as [->|H]; [now left | exact H].
    + destruct H as [->|H]; [now left | now right].
    + destruct H as [->|[->|H]]; [right; apply IH; now left | now left | right; apply IH; now right].
Qed.
Lemma bs_remove_in_r : forall b x l, In x l -> x <> b -> In x (bs_remove b l).
Proof.
  induction l as [|y r IH]; simpl; intros H Hne; [contradiction|].
  destruct (cbinding_compare b y) eqn:E.
  - apply cbinding_compare_eq in E. subst y. destruct H as [->|H]; [congruence | exact H].
  - exact H.
  - destruct H as [->|H]; [now left | right; now apply IH].
Qed.
Lemma bs_remove_notin : forall b l, bsorted l -> ~ In b (bs_remove b l).
Proof.
  induction l as [|y r IH]; simpl; intros Hs Hin; [contradiction|]. inversion Hs as [|? ? Hs' Hall]; subst.
  rewrite Forall_forall in Hall.
  destruct (cbinding_compare b y) eqn:E.
  - apply cbinding_compare_eq in E. subst y. apply Hall in Hin. unfold lt in Hin. rewrite cbinding_compare_refl in Hin. discriminate.
  - destruct Hin as [->|Hin]; [rewrite cbinding_compare_refl in E; discriminate|].
    apply Hall in Hin. unfold lt in Hin. pose proof (cbinding_compare_trans _ _ _ E Hin) as H. rewrite cbinding_compare_refl in H. discriminate.
  - destruct Hin as [->|Hin]; [rewrite cbinding_compare_refl in E; discriminate | now apply IH].
Qed.
Lemma bs_extend_in_r : forall bs x l, In x bs \/ In x l -> In x (bs_extend bs l).
Proof.
  induction bs as [|b r IH]; simpl; intros x l H; [destruct H; [contradiction | assumption]|].
  apply IH. destruct H as [[->|H]|H]; [right; apply bs_insert_in_r; now left | now left | right; apply bs_insert_in_r; now right].
Qed.
Lemma bs_remove_all_in_r : forall bs x l, In x l -> ~ In x bs -> In x (bs_remove_all bs l).
Proof.
  induction bs as [|b r IH]; simpl; intros x l H Hn; [exact H|].
  apply IH; [|tauto]. apply bs_remove_in_r; [exact H|]. intros ->. apply Hn. now left.
Qed.
Lemma bs_remove_all_notin : forall bs x l, bsorted l -> In x (bs_remove_all bs l) -> ~ In x bs.
Proof.
  induction bs as [|b r IH]; simpl; intros x l Hs H; [tauto|]. intros [->|Hin].
  - apply bs_remove_all_in in H. now apply bs_remove_notin in H.
  - apply IH in H; [contradiction | now apply bs_remove_sorted].
Qed.

Definition tfv_clauses (cls : list fsclause) (vars : bset) : bset := fold_left (fun acc c => tfv_clause c acc) cls vars.
Lemma tfv_term_xcase : forall c cls t vars, tfv_term (FsXCase c cls t) vars = tfv_clauses cls vars.
Proof.
  intros c cls t. simpl. unfold tfv_clauses. induction cls as [|y r IH]; intros vars; [reflexivity|]. simpl. apply IH.
Qed.

Lemma flookup_find : forall G i, option_map cbvar (flookup G i) = find (fun y => N.eqb (cid_id y) i) (cvars G).
Proof.
  induction G as [|b G IH]; intros i; [reflexivity|]. simpl. destruct (N.eqb (cid_id (cbvar b)) i); [reflexivity | apply IH].
Qed.
Lemma flookup_nodup : forall G b, NoDup (cids G) -> In b G -> flookup G (cid_id (cbvar b)) = Some b.
Proof.
  induction G as [|b0 G IH]; intros b Hnd Hin; [contradiction|]. simpl in *. inversion Hnd as [|? ? Hni Hnd']; subst.
  destruct Hin as [->|Hin]; [now rewrite N.eqb_refl|].
  destruct (N.eqb (cid_id (cbvar b0)) (cid_id (cbvar b))) eqn:E; [|now apply IH].
  apply N.eqb_eq in E. exfalso. apply Hni. rewrite E. unfold cids. apply in_map_iff. eauto.
Qed.
(* a typed, consistently named occurrence is a binding of the context *)
Lemma occ_binding : forall G v c t, fbound G v c t = None -> nc_var (cvars G) v = true ->
  In (mkcb v c t) G.
Proof.
  intros G v c t Hb Hn. destruct (fbound_inv _ _ _ _ Hb) as (b & Hf & Hc & Ht).
  unfold nc_var in Hn. rewrite <- flookup_find, Hf in Hn. cbn [option_map] in Hn. apply cident_eqb_eq in Hn.
  apply flookup_in in Hf as [Hin _]. destruct b as [bv bc bt]. simpl in *. subst. exact Hin.
Qed.

Section Tfv.
Variable p : fsprog.
Notation data := (fspdata p).
Notation codata := (fspcodata p).
Notation defs := (fspdefs p).
Notation m0 := (fspmax p).
Variable rho th : cident -> cident.
Variable st : sst.

Definition B (b : cbinding) : cbinding := mkcb (rho (cbvar b)) (cbchi b) (cbty b).

Definition tfv_ok (G : cctx) (occ : cident -> Prop) (binds : list N) (vars out : bset) : Prop :=
  (forall b, In b G -> occ (cbvar b) -> In (B b) out) /\
  (forall x, In x vars -> ~ In (cid_id (cbvar x)) binds -> In x out) /\
  (forall b', In b' out -> In b' vars \/ exists b, In b G /\ occ (cbvar b) /\ b' = B b).

(* binder ids are apart from the renamed context variables *)
Definition sep (G : cctx) (binds : list N) : Prop :=
  forall b i, In b G -> In i binds -> cid_id (rho (cbvar b)) <> i.
Lemma sep_of : forall G binds, inv p G rho th st -> (forall i, In i binds -> ~ In i (cids G) /\ (i <= m0)%N) -> sep G binds.
Proof.
  intros G binds Hinv Hb b i Hin Hi E. destruct (Hb i Hi) as [H1 H2].
  destruct (inv_rng _ _ _ _ _ Hinv b Hin) as [H|H]; [apply H1; now rewrite <- E | lia].
Qed.

Lemma tfv_ok_weaken : forall G (occ occ' : cident -> Prop) binds binds' vars out,
  tfv_ok G occ binds vars out -> (forall x, occ x <-> occ' x) -> (forall i, In i binds <-> In i binds') ->
  tfv_ok G occ' binds' vars out.
Proof.
  intros G occ occ' binds binds' vars out (H1 & H2 & H3) Ho Hb. split; [|split].
  - intros b Hb0 Hx. apply H1; auto. now apply Ho.
  - intros x Hx Hn. apply H2; auto. intros Hi. apply Hn. now apply Hb.
  - intros b' Hb'. destruct (H3 b' Hb') as [H|(b & Hin & Hx & E)]; [now left|]. right. exists b. split; [exact Hin|]. split; [now apply Ho | exact E].
Qed.
Lemma tfv_ok_seq : forall G (occ1 occ2 : cident -> Prop) binds1 binds2 vars mid out,
  tfv_ok G occ1 binds1 vars mid -> tfv_ok G occ2 binds2 mid out -> sep G binds2 ->
  tfv_ok G (fun x => occ1 x \/ occ2 x) (binds1 ++ binds2) vars out.
Proof.
  intros G occ1 occ2 binds1 binds2 vars mid out (A1 & A2 & A3) (B1 & B2 & B3) Hsep. split; [|split].
  - intros b Hb [Hx|Hx]; [|now apply B1]. apply B2; [now apply A1|]. cbn [B cbvar]. intros Hi. eapply Hsep; eauto.
  - intros x Hx Hn. apply B2; [apply A2; auto|]; intros Hi; apply Hn; apply in_or_app; auto.
  - intros b' Hb'. destruct (B3 b' Hb') as [H|(b & Hin & Hx & E)].
    + destruct (A3 b' H) as [H'|(b & Hin & Hx & E)]; [now left|]. right. exists b. auto.
    + right. exists b. auto.
Qed.
Lemma tfv_ok_none : forall G vars, tfv_ok G (fun _ => False) [] vars vars.
Proof. intros. split; [|split]; [intros b _ [] | auto | auto]. Qed.
(* inserting typed, consistently named occurrences *)
Lemma tfv_ok_extend : forall G vars args, inv p G rho th st ->
  (forall a, In a args -> In a G) ->
  tfv_ok G (fun x => In x (cvars args)) [] vars (bs_extend (rn_ctx rho args) vars).
Proof.
  intros G vars args Hinv Hargs. split; [|split].
  - intros b Hb Hx. apply bs_extend_in_r. left. unfold cvars in Hx. apply in_map_iff in Hx as (a & Ea & Ha).
    pose proof (Hargs a Ha) as HaG.
    assert (a = b).
    { pose proof (flookup_nodup G a (inv_nd _ _ _ _ _ Hinv) HaG) as F1. pose proof (flookup_nodup G b (inv_nd _ _ _ _ _ Hinv) Hb) as F2.
      rewrite Ea in F1. congruence. }
    subst a. unfold rn_ctx. apply in_map_iff. exists b. split; [reflexivity | exact Ha].
  - intros x Hx _. apply bs_extend_in_r. now right.
  - intros b' Hb'. apply bs_extend_in in Hb' as [H|H]; [|now left]. right.
    unfold rn_ctx in H. apply in_map_iff in H as (a & <- & Ha). exists a. split; [now apply Hargs|]. split; [|reflexivity].
    unfold cvars. apply in_map. exact Ha.
Qed.
Lemma tfv_ok_insert : forall G vars v c t, inv p G rho th st -> In (mkcb v c t) G ->
  tfv_ok G (fun x => v = x) [] vars (bs_insert (mkcb (rho v) c t) vars).
Proof.
  intros G vars v c t Hinv Hin.
  pose proof (tfv_ok_extend G vars [mkcb v c t] Hinv) as H. cbn [rn_ctx map rn_binding bs_extend fold_left cbvar cbchi cbty] in H.
  eapply tfv_ok_weaken; [apply H | | tauto].
  - intros a [<-|[]]. exact Hin.
  - intros x. cbn [cvars map cbvar In]. tauto.
Qed.

Lemma args_in_G : forall what G args sg L, fargs_ok what G args sg = None -> forallb (nc_var (cvars G)) (cvars args) = true ->
  L = G -> forall a, In a args -> In a L.
Proof.
  intros what G args. induction args as [|a ar IH]; intros [|s sr] L Hok Hnc -> b Hb; cbn [fargs_ok] in Hok; try discriminate; [contradiction|].
  apply seq_none in Hok as [_ Hok]. apply seq_none in Hok as [H2 H3]. cbn [cvars map forallb] in Hnc. apply andb_prop in Hnc as [Hn1 Hn2].
  destruct Hb as [<-|Hb].
  - pose proof (occ_binding _ _ _ _ H2 Hn1) as H. destruct a; exact H.
  - eapply IH; eauto.
Qed.

Definition hyps (G : cctx) : Prop := inv p G rho th st.

Lemma tfv_all :
  (forall t G side ty vars, hyps G -> check_term data codata defs G side ty t = None -> nc_term (cvars G) t = true ->
     ub_term (cids G) t = true -> ib_term m0 t = true -> bsorted vars ->
     tfv_ok G (fun x => occ_term x t) (cbinders_term t) vars (tfv_term (rn_term rho t) vars)) /\
  (forall cl G vars, hyps G -> check_stmt data codata defs (clause_ctx cl ++ G) (clause_body cl) = None ->
     nc_stmt (cvars (clause_ctx cl) ++ cvars G) (clause_body cl) = true ->
     ub_clause (cids G) cl = true -> ctx_le m0 (clause_ctx cl) && ib_stmt m0 (clause_body cl) = true -> bsorted vars ->
     tfv_ok G (fun x => occ_clause x cl) (cids (clause_ctx cl) ++ cbinders (clause_body cl)) vars (tfv_clause (rn_clause rho cl) vars)) /\
  (forall s G vars, hyps G -> check_stmt data codata defs G s = None -> nc_stmt (cvars G) s = true ->
     ub_stmt (cids G) s = true -> ib_stmt m0 s = true -> bsorted vars ->
     tfv_ok G (fun x => occurs x s) (cbinders s) vars (tfv_stmt (rn_stmt rho s) vars)).
Proof.
  apply fs_mutind.
  - (* XVar *) intros c v t G side ty vars Hh Hck Hnc _ _ _. cbn [check_term] in Hck.
    apply seq_none in Hck as [E1 Hck]. apply seq_none in Hck as [E2 Hck]. apply fensure_none in E1. apply fensure_none in E2.
    apply cchi_eqb_eq in E1. apply cty_eqb_eq in E2. subst side ty. cbn [nc_term] in Hnc.
    cbn [rn_term tfv_term occ_term cbinders_term]. apply tfv_ok_insert; auto. eapply occ_binding; eauto.
  - (* Lit *) intros n G side ty vars _ _ _ _ _ _. cbn. apply tfv_ok_none.
  - (* Op *) intros a o b G side ty vars Hh Hck Hnc _ _ _. cbn [check_term] in Hck.
    apply seq_none in Hck as [_ Hck]. apply seq_none in Hck as [_ Hck]. apply seq_none in Hck as [Ha Hb].
    cbn [nc_term] in Hnc. apply andb_prop in Hnc as [Hna Hnb].
    cbn [rn_term tfv_term occ_term cbinders_term]. unfold i64_prd.
    eapply tfv_ok_weaken with (binds := [] ++ []);
      [eapply tfv_ok_seq with (mid := bs_insert (mkcb (rho a) CPrd CI64) vars); [apply tfv_ok_insert; [exact Hh | eapply occ_binding; eauto] | apply tfv_ok_insert; [exact Hh | eapply occ_binding; eauto] | intros ? ? _ []] | tauto | tauto].
  - (* Mu *) intros c v s t' IH G side ty vars Hh Hck Hnc Hub Hib Hs.
    rewrite check_term_mu_eq in Hck. apply seq_none in Hck as [E1 Hck]. apply seq_none in Hck as [E2 Hck].
    apply fensure_none in E1. apply fensure_none in E2. apply cchi_eqb_eq in E1. apply cty_eqb_eq in E2. subst c t'.
    cbn [nc_term] in Hnc. cbn [ub_term] in Hub. apply andb_prop in Hub as [Hu1 Hu2]. apply negb_true_iff in Hu1.
    assert (Hv : ~ In (cid_id v) (cids G)) by (intros Hin; apply mem_id_in in Hin; congruence).
    rewrite ib_term_mu in Hib. apply andb_prop in Hib as [Hi1 Hi2]. apply N.leb_le in Hi1.
    set (bv := mkcb v (opp side) ty).
    assert (Hh' : hyps (bv :: G)) by (apply inv_push; auto).
    specialize (IH (bv :: G) vars Hh' Hck Hnc Hu2 Hi2 Hs). destruct IH as (A1 & A2 & A3).
    assert (Hbv : B bv = bv) by (unfold B, bv; cbn [cbvar cbchi cbty]; rewrite (inv_rho _ _ _ _ _ Hh v Hv Hi1); reflexivity).
    assert (Hrem : match side with CPrd => CCns | CCns => CPrd end = opp side) by (destruct side; reflexivity).
    cbn [rn_term tfv_term occ_term cbinders_term]. rewrite Hrem. fold bv.
    assert (Hsorted : bsorted (tfv_stmt (rn_stmt rho s) vars)) by (apply tfv_sorted_all; exact Hs).
    split; [|split].
    + intros b Hb Hx. apply bs_remove_in_r; [apply A1; [now right | exact Hx]|].
      intros E. unfold B, bv in E. injection E as E _ _. destruct (inv_rng _ _ _ _ _ Hh b Hb) as [H|H]; [apply Hv; now rewrite <- E | rewrite E in H; lia].
    + intros x Hx Hn. apply bs_remove_in_r; [apply A2; [exact Hx | intros Hi; apply Hn; now right]|].
      intros ->. apply Hn. left. reflexivity.
    + intros b' Hb'. assert (Hne : b' <> bv) by (intros ->; revert Hb'; apply bs_remove_notin; exact Hsorted).
      apply bs_remove_in in Hb'. destruct (A3 b' Hb') as [H|(b & [<-|Hin] & Hx & E)]; [now left | congruence | right; eauto].
  - (* Xtor *) intros c x args t' G side ty vars Hh Hck Hnc _ _ _.
    destruct (xtor_typing _ _ _ _ _ _ _ _ _ _ Hck) as (T & d & sg & _ & _ & _ & Hfa). cbn [nc_term] in Hnc.
    cbn [rn_term tfv_term occ_term cbinders_term]. apply tfv_ok_extend; auto. eapply args_in_G; eauto.
  - (* XCase *) intros c cls t' IH G side ty vars Hh Hck Hnc Hub Hib Hs.
    destruct (xcase_typing _ _ _ _ _ _ _ _ _ Hck) as (T & d & _ & _ & _ & Hcb).
    rewrite nc_term_xcase in Hnc. rewrite ub_term_xcase in Hub. rewrite ib_term_xcase in Hib.
    rewrite rn_term_xcase, tfv_term_xcase, cbinders_term_xcase.
    eapply tfv_ok_weaken with (occ := fun x => occ_clauses x cls); [| intros x; symmetry; apply occ_term_xcase | reflexivity].
    clear Hck. revert vars Hs Hcb Hnc Hub Hib. unfold rn_clauses, tfv_clauses, cbinders_clauses, occ_clauses.
    induction IH as [|cl r Hcl _ IHr]; intros vars Hs Hcb Hnc Hub Hib.
    + simpl. eapply tfv_ok_weaken; [apply tfv_ok_none | | reflexivity]. intros x. split; [intros [] | intros (c0 & [] & _)].
    + cbn [map fold_left flat_map].
      assert (Hin : In cl (cl :: r)) by now left.
      pose proof (check_bodies_in p _ _ _ Hcb Hin) as Hc1. pose proof (nc_clauses_in _ _ _ Hnc Hin) as Hn1.
      unfold ub_clauses in Hub. cbn [forallb] in Hub. apply andb_prop in Hub as [Hu1 Hu2].
      unfold ib_clauses in Hib. cbn [forallb] in Hib. apply andb_prop in Hib as [Hi1 Hi2].
      pose proof (Hcl G vars Hh Hc1 Hn1 Hu1 Hi1 Hs) as H1.
      assert (Hcb2 : check_bodies data codata defs G r = None).
      { destruct cl as [c0 x0 ctx0 b0]. rewrite check_bodies_cons in Hcb. destruct (check_stmt _ _ _ (ctx0 ++ G) b0); [discriminate | exact Hcb]. }
      assert (Hnc2 : nc_clauses (cvars G) r = true) by (unfold nc_clauses in *; cbn [forallb] in Hnc; now apply andb_prop in Hnc).
      specialize (IHr (tfv_clause (rn_clause rho cl) vars) ltac:(apply tfv_sorted_all; exact Hs) Hcb2 Hnc2 Hu2 Hi2).
      eapply tfv_ok_weaken; [eapply tfv_ok_seq; [exact H1 | exact IHr |] | | reflexivity].
      * apply sep_of with (binds := flat_map (fun c0 => cids (clause_ctx c0) ++ cbinders (clause_body c0)) r); [exact Hh|].
        intros i Hi. apply in_flat_map in Hi as (c0 & Hc0 & Hi).
        unfold ub_clauses in Hu2. rewrite forallb_forall in Hu2. pose proof (Hu2 c0 Hc0) as Hu.
        rewrite forallb_forall in Hi2. pose proof (Hi2 c0 Hc0) as Hi'.
        split; [eapply (proj1 (proj2 ub_notin_all)); eauto | eapply (proj1 (proj2 (cbinders_le_all m0))); eauto].
      * intros x. split.
        -- intros [H|(c0 & Hc0 & H)]; [exists cl; split; [now left | exact H] | exists c0; split; [now right | exact H]].
        -- intros (c0 & [<-|Hc0] & H); [now left | right; eauto].
  - (* Clause *) intros c x ctx b IH G vars Hh Hck Hnc Hub Hib Hs. cbn [clause_ctx clause_body] in *.
    cbn [ub_clause] in Hub. apply andb_prop in Hub as [Hu1 Hu2]. apply fresh_ids_spec in Hu1 as [Hnd Hni].
    apply andb_prop in Hib as [Hi1 Hi2].
    assert (Hids : forall i, In i (cids ctx) -> ~ In i (cids G) /\ (i <= m0)%N).
    { intros i Hi. split; [now apply Hni | eapply ctx_le_ids; eauto]. }
    assert (Hh' : hyps (ctx ++ G)).
    { clear -Hh Hnd Hids. revert Hnd Hids. induction ctx as [|[x c t] ctx IH]; intros Hnd Hids; [exact Hh|].
      cbn [cids map cbvar] in Hnd. inversion Hnd as [|? ? Hni Hnd']; subst. cbn [app]. apply inv_push.
      - apply IH; auto. intros i Hi. apply Hids. now right.
      - rewrite cids_app. intros Hin. apply in_app_or in Hin as [Hin|Hin]; [contradiction|].
        apply (proj1 (Hids (cid_id x) (or_introl eq_refl))). exact Hin.
      - apply Hids. now left. }
    rewrite ub_cids_app in Hu2. unfold cvars in Hnc. rewrite <- map_app in Hnc. fold (cvars (ctx ++ G)) in Hnc.
    specialize (IH (ctx ++ G) vars Hh' Hck Hnc Hu2 Hi2 Hs). destruct IH as (A1 & A2 & A3).
    assert (HB : forall b0, In b0 ctx -> B b0 = b0).
    { intros b0 Hb0. assert (Hbi : In (cid_id (cbvar b0)) (cids ctx)) by (unfold cids; apply in_map_iff; eauto).
      destruct (Hids _ Hbi). unfold B. rewrite (inv_rho _ _ _ _ _ Hh); auto. destruct b0; reflexivity. }
    cbn [rn_clause tfv_clause occ_clause].
    assert (Hsorted : bsorted (tfv_stmt (rn_stmt rho b) vars)) by (apply tfv_sorted_all; exact Hs).
    split; [|split].
    + intros b0 Hb0 Hx. apply bs_remove_all_in_r; [apply A1; [apply in_or_app; now right | exact Hx]|].
      intros Hin. assert (Hbi : In (cid_id (cbvar (B b0))) (cids ctx)) by (unfold cids; apply in_map_iff; eauto).
      destruct (Hids _ Hbi) as [H1 H2]. cbn [B cbvar] in H1, H2. destruct (inv_rng _ _ _ _ _ Hh b0 Hb0) as [H|H]; [contradiction | lia].
    + intros y Hy Hn. apply bs_remove_all_in_r; [apply A2; [exact Hy | intros Hi; apply Hn; apply in_or_app; now right]|].
      intros Hin. apply Hn. apply in_or_app. left. unfold cids. apply in_map_iff. eauto.
    + intros b' Hb'. pose proof (bs_remove_all_notin _ _ _ Hsorted Hb') as Hne. apply bs_remove_all_in in Hb'.
      destruct (A3 b' Hb') as [H|(b0 & Hin & Hx & E)]; [now left|]. apply in_app_or in Hin as [Hin|Hin].
      * rewrite (HB b0 Hin) in E. subst b'. contradiction.
      * right. eauto.
  - (* Cut *) intros pr ty k IHp IHk G vars Hh Hck Hnc Hub Hib Hs.
    rewrite check_stmt_cut_eq in Hck. apply seq_none in Hck as [_ Hck]. apply seq_none in Hck as [Hcp Hck].
    apply nc_cut in Hnc as [Hn1 Hn2]. cbn [ub_stmt] in Hub. apply andb_prop in Hub as [Hu1 Hu2].
    rewrite ib_stmt_cut in Hib. apply andb_prop in Hib as [Hi1 Hi2].
    cbn [rn_stmt tfv_stmt occurs cbinders].
    eapply tfv_ok_seq; [eapply IHp; eauto | eapply IHk; eauto; apply tfv_sorted_all; exact Hs |].
    apply sep_of; [exact Hh|]. intros i Hi. split; [eapply (proj1 ub_notin_all); eauto | eapply (proj1 (cbinders_le_all m0)); eauto].
  - (* IfC *) intros so a b t e IHt IHe G vars Hh Hck Hnc Hub Hib Hs.
    rewrite check_stmt_ifc_eq in Hck. apply seq_none in Hck as [Hca Hck]. apply seq_none in Hck as [Hcb Hck]. apply seq_none in Hck as [Hct Hce].
    cbn [nc_stmt] in Hnc. apply andb_prop in Hnc as [Hnc Hne]. apply andb_prop in Hnc as [Hnc Hnt]. apply andb_prop in Hnc as [Hna Hnb].
    cbn [ub_stmt] in Hub. apply andb_prop in Hub as [Hu1 Hu2].
    rewrite ib_stmt_ifc in Hib. apply andb_prop in Hib as [Hib Hi2]. apply andb_prop in Hib as [_ Hi1].
    cbn [rn_stmt tfv_stmt occurs cbinders].
    set (v1 := bs_insert (i64_prd (rho a)) vars).
    set (v2 := match option_map rho b with Some b' => bs_insert (i64_prd b') v1 | None => v1 end).
    assert (Hs1 : bsorted v1) by (apply bs_insert_sorted; exact Hs).
    assert (Hs2 : bsorted v2) by (unfold v2; destruct b; cbn [option_map]; [apply bs_insert_sorted|]; exact Hs1).
    assert (Hok2 : tfv_ok G (fun x => a = x \/ b = Some x) ([] ++ []) vars v2).
    { unfold v2. destruct b as [b|]; cbn [option_map].
      - eapply tfv_ok_weaken; [eapply tfv_ok_seq with (mid := v1); [apply tfv_ok_insert; [exact Hh | eapply occ_binding; eauto] | apply tfv_ok_insert; [exact Hh | eapply occ_binding; eauto] | intros ? ? _ []] | | reflexivity].
        intros x. split; [intros [H|H]; [now left | right; now subst] | intros [H|H]; [now left | right; now inv H]].
      - eapply tfv_ok_weaken; [apply tfv_ok_insert; [exact Hh | eapply occ_binding; eauto] | | reflexivity].
        intros x. split; [now left | intros [H|H]; [exact H | discriminate]]. }
    assert (Hsep_t : sep G (cbinders t)).
    { apply sep_of; [exact Hh|]. intros i Hi. split; [eapply ub_notin; [exact Hu1 | exact Hi] | eapply (proj2 (proj2 (cbinders_le_all m0))); [exact Hi1 | exact Hi]]. }
    assert (Hsep_e : sep G (cbinders e)).
    { apply sep_of; [exact Hh|]. intros i Hi. split; [eapply ub_notin; [exact Hu2 | exact Hi] | eapply (proj2 (proj2 (cbinders_le_all m0))); [exact Hi2 | exact Hi]]. }
    eapply tfv_ok_weaken; [eapply tfv_ok_seq; [eapply tfv_ok_seq; [exact Hok2 | eapply IHt; eauto | exact Hsep_t] | eapply IHe; eauto; apply tfv_sorted_all; exact Hs2 | exact Hsep_e] | | ].
    + intros x. tauto.
    + intros i. cbn [app]. reflexivity.
  - (* Print *) intros nl a nx IH G vars Hh Hck Hnc Hub Hib Hs.
    rewrite check_stmt_print_eq in Hck. apply seq_none in Hck as [Hca Hck].
    cbn [nc_stmt] in Hnc. apply andb_prop in Hnc as [Hna Hnn]. cbn [ub_stmt] in Hub.
    rewrite ib_stmt_print in Hib. apply andb_prop in Hib as [_ Hib].
    cbn [rn_stmt tfv_stmt occurs cbinders].
    eapply tfv_ok_weaken with (binds := [] ++ cbinders nx);
      [eapply tfv_ok_seq; [apply tfv_ok_insert; [exact Hh | eapply occ_binding; eauto] | eapply IH; eauto; apply bs_insert_sorted; exact Hs |] | tauto | reflexivity].
    apply sep_of; [exact Hh|]. intros i Hi. split; [eapply ub_notin; eauto | eapply (proj2 (proj2 (cbinders_le_all m0))); eauto].
  - (* Call *) intros f args G vars Hh Hck Hnc _ _ _. cbn [check_stmt] in Hck.
    destruct (find _ defs) as [d|]; [|discriminate]. cbn [nc_stmt] in Hnc.
    cbn [rn_stmt tfv_stmt occurs cbinders]. apply tfv_ok_extend; auto. eapply args_in_G; eauto.
  - (* Exit *) intros v G vars Hh Hck Hnc _ _ _. cbn [check_stmt] in Hck. cbn [nc_stmt] in Hnc.
    cbn [rn_stmt tfv_stmt occurs cbinders]. unfold i64_prd. apply tfv_ok_insert; auto. eapply occ_binding; eauto.
Qed.

(* what `lift` needs *)
Lemma typed_free_vars_spec : forall s G, inv p G rho th st ->
  check_stmt data codata defs G s = None -> nc_stmt (cvars G) s = true ->
  ub_stmt (cids G) s = true -> ib_stmt m0 s = true ->
  (forall b, In b G -> occurs (cbvar b) s -> In (B b) (typed_free_vars (rn_stmt rho s))) /\
  (forall b', In b' (typed_free_vars (rn_stmt rho s)) -> exists b, In b G /\ occurs (cbvar b) s /\ b' = B b).
Proof.
  intros s G Hinv Hck Hnc Hub Hib.
  destruct (proj2 (proj2 tfv_all) s G [] Hinv Hck Hnc Hub Hib ltac:(constructor)) as (A1 & _ & A3).
  split; [exact A1|]. intros b' Hb'. destruct (A3 b' Hb') as [[]|H]. exact H.
Qed.
End Tfv.
