(* What `Backend.code_statement` emits, statement form by statement form, for ANY back end (inversion lemmas
   cs_literal, cs_op, cs_print, cs_exit, cs_call, cs_ifc, cs_substitute, cs_create, cs_invoke), where `translate` puts the
   definitions, and the clause loop of Switch / Create as one function ([cl_loop]).  Statements of other files mention
   [iflabel], [clauses_code] and [table_or_nil], which are defined here. *)
From Coq Require Import List ZArith NArith String Bool Lia.
From SCC Require Import Base.Sexp Lang.AxSyn Model.ParMoves Model.Backend.
Import ListNotations.
Open Scope list_scope.

(* [ub H]: H : rbind e f = Ok _ ; e = Ok x is recorded as E and H becomes f x = Ok _.  [ubp H]: the same for e = Ok (_, _). *)
Ltac ub H :=
  match type of H with
  | rbind ?e _ = Ok _ => let x := fresh "x" in let E := fresh "E" in destruct e as [x|?] eqn:E; [cbn [rbind] in H|discriminate H]
  end.

Ltac ubp H :=
  match type of H with
  | rbind ?e _ = Ok _ => let E := fresh "E" in destruct e as [[? ?]|?] eqn:E; [cbn [rbind] in H|discriminate H]
  end.

Section Inv.
Context {Code Temp : Type} (B : backend Code Temp).
Notation cs := (code_statement B).
Notation vt := (variable_temporary B Snd).

(* [ub_as H x E]: [ub] on the innermost bind of H, with the names given *)
Ltac ub_as H x E :=
  match type of H with
  | context [rbind ?r _] =>
      lazymatch r with
      | rbind _ _ => fail
      | _ => destruct r as [x|] eqn:E; cbn [rbind] in H; [|discriminate]
      end
  end.

Lemma cs_literal types n v next c lc code lc' :
  cs types (Literal n v next) c lc = Ok (code, lc') ->
  exists tv c2, vt (c ++ [mkb v Ext I64]) (idn v) = Ok tv /\
    cs types next (c ++ [mkb v Ext I64]) lc = Ok (c2, lc') /\
    code = b_mark B c ++ b_load_immediate B tv n ++ c2.
Proof.
  intros H. cbn [code_statement] in H. ub_as H tv TV. ub_as H nx NX. destruct nx as [c2 lc2].
  cbn in H. inversion H; subst. eauto.
Qed.

Lemma cs_op types a o b v next c lc code lc' :
  cs types (Op a o b v next) c lc = Ok (code, lc') ->
  exists tv ta tb c2, vt (c ++ [mkb v Ext I64]) (idn v) = Ok tv /\
    vt (c ++ [mkb v Ext I64]) (idn a) = Ok ta /\ vt (c ++ [mkb v Ext I64]) (idn b) = Ok tb /\
    cs types next (c ++ [mkb v Ext I64]) lc = Ok (c2, lc') /\
    code = b_mark B c ++ b_arith B o tv ta tb ++ c2.
Proof.
  intros H. cbn [code_statement] in H. ub_as H tv TV. ub_as H ta Hta. ub_as H tb Htb. ub_as H nx NX. destruct nx as [c2 lc2].
  cbn in H. inversion H; subst. exists tv, ta, tb, c2. auto.
Qed.

Lemma cs_print types nl v next c lc code lc' :
  cs types (PrintI64 nl v next) c lc = Ok (code, lc') ->
  exists tv c2, vt c (idn v) = Ok tv /\ cs types next c lc = Ok (c2, lc') /\ code = b_mark B c ++ b_print B nl tv c ++ c2.
Proof.
  intros H. cbn [code_statement] in H. ub_as H tv TV. ub_as H nx NX. destruct nx as [c2 lc2].
  cbn in H. inversion H; subst. eauto.
Qed.

Lemma cs_exit types v c lc code lc' :
  cs types (Exit v) c lc = Ok (code, lc') ->
  exists tv, vt c (idn v) = Ok tv /\ code = b_mark B c ++ b_mov B (b_return1 B) tv ++ b_jump_label B "cleanup" /\ lc' = lc.
Proof. intros H. cbn [code_statement] in H. ub_as H tv TV. cbn in H. inversion H; subst. eauto. Qed.

Lemma cs_call types l args c lc code lc' :
  cs types (Call l args) c lc = Ok (code, lc') -> code = b_mark B c ++ b_jump_label B (show_ident l +++ "_") /\ lc' = lc.
Proof. intros H. cbn [code_statement] in H. cbn in H. inversion H; subst. auto. Qed.

(* the else branch is generated first (counter lc + 1) and stands before the label; the then branch follows it *)
Definition iflabel (lc : N) : string := "lab" +++ n_to_string (lc + 1)%N.
Lemma cs_ifc types so a b thenc elsec c lc code lc' :
  cs types (IfC so a b thenc elsec) c lc = Ok (code, lc') ->
  exists ta c1 c2 lc2 c3, vt c (idn a) = Ok ta /\
    match b with
    | None => c1 = b_jcc1 B so ta (iflabel lc)
    | Some b => exists tb, vt c (idn b) = Ok tb /\ c1 = b_jcc2 B so ta tb (iflabel lc)
    end /\
    cs types elsec c (lc + 1)%N = Ok (c2, lc2) /\ cs types thenc c lc2 = Ok (c3, lc') /\
    code = b_mark B c ++ c1 ++ c2 ++ [b_label B (iflabel lc)] ++ c3.
Proof.
  intros H. cbn [code_statement] in H. fold (iflabel lc) in H. ub_as H ta Hta.
  destruct b as [b|].
  - ub_as H tb Htb. cbn [rbind] in H. ub_as H el EL. destruct el as [c2 lc2]. ub_as H th TH. destruct th as [c3 lc3].
    cbn in H. inversion H; subst. exists ta, (b_jcc2 B so ta tb (iflabel lc)), c2, lc2, c3. repeat split; eauto.
  - cbn [rbind] in H. ub_as H el EL. destruct el as [c2 lc2]. ub_as H th TH. destruct th as [c3 lc3].
    cbn in H. inversion H; subst. exists ta, (b_jcc1 B so ta (iflabel lc)), c2, lc2, c3. repeat split; eauto.
Qed.

Lemma cs_substitute types re next c lc code lc' :
  cs types (Substitute re next) c lc = Ok (code, lc') ->
  exists c1 lc1 c2 c3,
    code_weakening_contraction B (transpose re c) c lc = Ok (c1, lc1) /\
    code_exchange B (transpose re c) c (map fst re) = Ok c2 /\
    cs types next (map fst re) lc1 = Ok (c3, lc') /\ code = b_mark B c ++ c1 ++ c2 ++ c3.
Proof.
  intros H. cbn [code_statement] in H. ub_as H wc WC. destruct wc as [c1 lc1]. ub_as H c2 CE. ub_as H nx NX. destruct nx as [c3 lc3].
  cbn in H. inversion H; subst. exists c1, lc1, c2, c3. auto.
Qed.

(* the clause code of a Create statement *)
Section CC.
Variables (types : list tydecl) (env : ctx) (fresh : string).
Fixpoint clauses_code (l : list clause) (lc : N) {struct l} : res (list Code * N) :=
  match l with
  | [] => Ok ([], lc)
  | (x, cx, body) :: r =>
      dor ld <- b_load B env cx lc;
      let '(cl, lc1) := ld in
      dor bd <- cs types body (cx ++ env) lc1;
      let '(cb, lc2) := bd in
      dor rs <- clauses_code r lc2;
      let '(cr, lc3) := rs in
      Ok ([b_label B (fresh +++ "_" +++ show_ident x)] ++ cl ++ cb ++ cr, lc3)
  end.
End CC.

Definition table_or_nil (cls : list clause) (fresh : string) : list Code :=
  if Nat.leb (List.length cls) 1 then [] else code_table B cls fresh.

(* only for an annotated environment: `Create _ _ None _ _` is an error of the code generator *)
Lemma cs_create types v t env cls next c lc code lc' :
  cs types (Create v t (Some env) cls next) c lc = Ok (code, lc') ->
  exists rest cenv c1 lc1 tmpv c3 lc3 c5,
    Backend.split_last (List.length env) c = Ok (rest, cenv) /\
    b_store B cenv rest lc = Ok (c1, lc1) /\
    vt (rest ++ [mkb v Cns t]) (idn v) = Ok tmpv /\
    cs types next (rest ++ [mkb v Cns t]) (lc1 + 1)%N = Ok (c3, lc3) /\
    clauses_code types cenv (type_label t (lc1 + 1)%N) cls lc3 = Ok (c5, lc') /\
    code = b_mark B c ++ c1 ++ b_load_label B tmpv (type_label t (lc1 + 1)%N) ++ c3 ++
           ([b_label B (type_label t (lc1 + 1)%N)] ++ table_or_nil cls (type_label t (lc1 + 1)%N)) ++ c5.
Proof.
  intros H. cbn [code_statement] in H.
  ub_as H sp SL. destruct sp as [rest cenv]. ub_as H st ST. destruct st as [c1 lc1]. ub_as H tmpv TV. ub_as H nx NX. destruct nx as [c3 lc3].
  match type of H with
  | context [rbind (?f cls lc3) _] => change (f cls lc3) with (clauses_code types cenv (type_label t (lc1 + 1)%N) cls lc3) in H
  end.
  ub_as H cc CC. destruct cc as [c5 lc5].
  cbn in H. inversion H; subst. exists rest, cenv, c1, lc1, tmpv, c3, lc3, c5. repeat split; auto.
Qed.

Lemma cs_invoke types v tag t args c lc code lc' :
  cs types (Invoke v tag t args) c lc = Ok (code, lc') ->
  exists tmpv d, vt c (idn v) = Ok tmpv /\ lookup_type types t = Ok d /\ lc' = lc /\
    if Nat.leb (List.length (txtors d)) 1 then code = b_mark B c ++ b_jump B tmpv
    else exists k, xtor_position (txtors d) tag 0 = Ok k /\ code = b_mark B c ++ b_add_and_jump B tmpv (b_jump_length B k).
Proof.
  intros H. cbn [code_statement] in H. ub_as H tmpv TV. ub_as H d LT.
  exists tmpv, d. split; [reflexivity|]. split; [reflexivity|].
  destruct (Nat.leb (List.length (txtors d)) 1).
  - cbn in H. inversion H; subst. auto.
  - ub_as H k XP. cbn in H. inversion H; subst. eauto.
Qed.

(* where clause k sits in the clause code *)
Lemma clauses_code_nth types env fresh : forall cls lc c5 lc' k x cx body,
  clauses_code types env fresh cls lc = Ok (c5, lc') -> nth_error cls k = Some (x, cx, body) ->
  exists pre lc0 cl lc1 cb lc2 post,
    c5 = pre ++ [b_label B (fresh +++ "_" +++ show_ident x)] ++ cl ++ cb ++ post /\
    b_load B env cx lc0 = Ok (cl, lc1) /\ cs types body (cx ++ env) lc1 = Ok (cb, lc2) /\ (k = O -> pre = []).
Proof.
  induction cls as [|[[x0 cx0] body0] r IH]; intros lc c5 lc' k x cx body H Hk; [destruct k; discriminate|].
  cbn [clauses_code] in H. ub_as H ld LD. destruct ld as [cl lc1]. ub_as H bd BD. destruct bd as [cb lc2]. ub_as H rs RS. destruct rs as [cr lc3].
  inversion H; subst c5 lc'. destruct k as [|k]; cbn [nth_error] in Hk.
  - inversion Hk; subst. exists [], lc, cl, lc1, cb, lc2, cr. auto.
  - destruct (IH _ _ _ _ _ _ _ RS Hk) as (pre & lc0 & cl' & lc1' & cb' & lc2' & post & -> & L & Bd & _).
    exists ([b_label B (fresh +++ "_" +++ show_ident x0)] ++ cl ++ cb ++ pre), lc0, cl', lc1', cb', lc2', post.
    split; [|split; [auto|split; [auto|discriminate]]]. rewrite <- !app_assoc. reflexivity.
Qed.

Lemma translate_defs types : forall defs lc code lc',
  translate B types defs lc = Ok (code, lc') ->
  forall d, In d defs ->
  exists pre lcd cd lcd' post,
    code = pre ++ b_label B (show_ident (dname d) +++ "_") :: cd ++ post /\
    cs types (dbody d) (dctx d) lcd = Ok (cd, lcd').
Proof.
  induction defs as [|d0 r IH]; intros lc code lc' H d Hin; [destruct Hin|].
  cbn [translate] in H. ub_as H cd C0. destruct cd as [c1 lc1]. ub_as H cr Htr. destruct cr as [c2 lc2].
  cbn in H. inversion H; subst code lc'; clear H.
  destruct Hin as [<-|Hin].
  - exists [], lc, c1, lc1, c2. split; [reflexivity|exact C0].
  - destruct (IH lc1 c2 lc2 Htr d Hin) as (pre & lcd & cd & lcd' & post & -> & CD).
    exists (b_label B (show_ident (dname d0) +++ "_") :: c1 ++ pre), lcd, cd, lcd', post. split; [|exact CD].
    cbn [app]. f_equal. now rewrite <- app_assoc.
Qed.
End Inv.

(* the clause loop of Switch and Create *)
Section Loop.
Context {Code Temp : Type} (B : backend Code Temp).
Definition cl_loop (types : list tydecl) (fresh : string) (ldf : ctx -> N -> res (list Code * N)) (ctxf : ctx -> ctx) :=
  fix go (l : list clause) (lc : N) : res (list Code * N) :=
    match l with
    | [] => Ok ([], lc)
    | (x, cx, body) :: r =>
        dor ld <- ldf cx lc;
        let '(cl, lc1) := ld in
        dor bd <- code_statement B types body (ctxf cx) lc1;
        let '(cb, lc2) := bd in
        dor rs <- go r lc2;
        let '(cr, lc3) := rs in
        Ok ([b_label B (fresh +++ "_" +++ show_ident x)] ++ cl ++ cb ++ cr, lc3)
    end.
Lemma code_switch_eq types v t cls context lc :
  code_statement B types (Switch v t cls) context lc =
  dor body <-
    (let lc1 := (lc + 1)%N in
     let fresh := type_label t lc1 in
     let n := List.length cls in
     dor c1 <-
       (if Nat.leb n 1 then Ok []
        else dor tmpv <- variable_temporary B Snd context (idn v);
             Ok (b_load_label B (b_temp B) fresh ++ b_arith B Sum (b_temp B) (b_temp B) tmpv ++ b_jump B (b_temp B)));
     let c2 := [b_label B fresh] ++ (if Nat.leb n 1 then [] else code_table B cls fresh) in
     let context' := removelast context in
     dor cc <- cl_loop types fresh (fun cx lc => b_load B cx context' lc) (fun cx => context' ++ cx) cls lc1;
     let '(c3, lc3) := cc in
     Ok (c1 ++ c2 ++ c3, lc3));
  Ok (b_mark B context ++ fst body, snd body).
Proof. reflexivity. Qed.
Lemma code_create_eq types v t env cls next context lc :
  code_statement B types (Create v t (Some env) cls next) context lc =
  dor body <-
    (dor sp <- split_last (List.length env) context;
     let '(rest, closure_environment) := sp in
     dor st <- b_store B closure_environment rest lc;
     let '(c1, lc1) := st in
     let lc2 := (lc1 + 1)%N in
     let fresh := type_label t lc2 in
     let context' := rest ++ [mkb v Cns t] in
     dor tmpv <- variable_temporary B Snd context' (idn v);
     let c2 := b_load_label B tmpv fresh in
     dor nx <- code_statement B types next context' lc2;
     let '(c3, lc3) := nx in
     let n := List.length cls in
     let c4 := [b_label B fresh] ++ (if Nat.leb n 1 then [] else code_table B cls fresh) in
     dor cc <- cl_loop types fresh (fun cx lc => b_load B closure_environment cx lc) (fun cx => cx ++ closure_environment) cls lc3;
     let '(c5, lc5) := cc in
     Ok (c1 ++ c2 ++ c3 ++ c4 ++ c5, lc5));
  Ok (b_mark B context ++ fst body, snd body).
Proof. reflexivity. Qed.
End Loop.
