(* C03, uniquify preserves behaviour: what the alpha-equivalence proof (Proof/UqMain.v, [uq_aeq_all]) needs about
   binders.  [J]: the invariant that ties the pending substitution of the ORIGINAL term to the binder
   correspondence; [uqc]: the loop over a parameter / clause context without its accumulators, with its
   specification [uqc_spec]; J and [GOK] under the binders of a mu and of a context. *)
From Coq Require Import List ZArith NArith String Bool Lia.
From SCC Require Import Base.Sexp Lang.CoreSyn Model.Backend Model.Uniquify Model.FocusCheck Proof.CoreInd
     Proof.SubstProof Proof.UniquifyProof Proof.FocusKont Proof.UqSubst Proof.UqAeq.
From SCC Require Import Model.FocusGuard.
Import ListNotations.
Open Scope list_scope.
Open Scope N_scope.

(* subst_sim keeps one list for variables (P) and one for covariables (C): the list an occurrence of
   chirality c is looked up in *)
Definition sel (c : cchi) (P C : csubst) : csubst := match c with CPrd => P | CCns => C end.
(* the name an occurrence x has after a lookup returned r (uniquify substitutes variables only) *)
Definition sname (r : option cterm) (x : cident) : cident := match r with Some (CXVar _ n _) => n | _ => x end.
(* replacements are variables with non-zero ids: the fresh names, never renamed again *)
Definition rvar0 (s : csubst) : Prop := forall k t, In (k, t) s -> exists ch n ty, t = CXVar ch n ty /\ cid_id n <> 0.
(* x, used at chirality c, refers to a binder of that chirality (or to none) *)
Definition scoped_at (G : gam) (c : cchi) (x : cident) : Prop :=
  match gfind G x with Some (ch, _) => ch = c | None => True end.

(* the pending substitution agrees with the binder correspondence *)
Definition J (G : gam) (P C : csubst) : Prop :=
  rvar0 P /\ rvar0 C /\ forall x c, scoped_at G c x -> sname (subst_find x (sel c P C)) x = img G x.

(* the loop over a context, without accumulators *)
Fixpoint uqc (bs : list cbinding) (m : N) : cctx * csubst * csubst * N :=
  match bs with
  | [] => ([], [], [], m)
  | b :: r =>
      if N.eqb (cid_id (cbvar b)) 0 then
        let nv := (cid_name (cbvar b), m + 1) in
        let nb := mkcb nv (cbchi b) (cbty b) in
        let '(c, v, k, m') := uqc r (m + 1) in
        match cbchi b with
        | CPrd => (nb :: c, (cbvar b, CXVar CPrd nv (cbty b)) :: v, k, m')
        | CCns => (nb :: c, v, (cbvar b, CXVar CCns nv (cbty b)) :: k, m')
        end
      else let '(c, v, k, m') := uqc r m in (b :: c, v, k, m')
  end.

Lemma uq_context_uqc : forall bs m, uq_context bs m [] [] [] = uqc bs m.
Proof.
  induction bs as [|b r IH]; intros m; simpl; [reflexivity|].
  unfold fresh_identifier.
  destruct (N.eqb (cid_id (cbvar b)) 0).
  - destruct (cbchi b); rewrite uq_context_acc, IH; destruct (uqc r (m + 1)) as [[[c v] k] m']; reflexivity.
  - rewrite uq_context_acc, IH. destruct (uqc r m) as [[[c v] k] m']. reflexivity.
Qed.

(* the substitution built for a context: zero-id parameters of ctx to fresh variables with ids in (lo, hi] *)
Definition fresh_rng (ctx : cctx) (lo hi : N) (s : csubst) : Prop :=
  forall k t, In (k, t) s -> exists ch n ty, t = CXVar ch n ty /\ lo < cid_id n <= hi /\ In k (cvars ctx) /\ cid_id k = 0.

Lemma fresh_rng_cons_ctx : forall b ctx lo hi s, fresh_rng ctx lo hi s -> fresh_rng (b :: ctx) lo hi s.
Proof. intros b ctx lo hi s H k t I. destruct (H k t I) as (ch & n & ty & A & B & C & D). exists ch, n, ty. simpl. auto. Qed.
Lemma fresh_rng_lo : forall ctx lo lo' hi s, fresh_rng ctx lo hi s -> lo' <= lo -> fresh_rng ctx lo' hi s.
Proof. intros ctx lo lo' hi s H L k t I. destruct (H k t I) as (ch & n & ty & A & B & C & D). exists ch, n, ty. repeat split; auto; lia. Qed.

(* the counter grows; ctx' is ctx up to names; both substitutions are fresh renamings of parameters of ctx;
   looking a parameter up (by its chirality) gives its partner in ctx', anything else is untouched;
   a partner is the parameter itself or fresh *)
Lemma uqc_spec : forall ctx m ctx' vs cs m1, uqc ctx m = (ctx', vs, cs, m1) ->
  m <= m1 /\ ctx_like ctx ctx' /\ fresh_rng ctx m m1 vs /\ fresh_rng ctx m m1 cs /\
  (forall x c, match gfind (gzip ctx ctx') x with
               | Some (ch, x') => ch = c -> sname (subst_find x (sel c vs cs)) x = x'
               | None => subst_find x vs = None /\ subst_find x cs = None /\ ~ In x (cvars ctx)
               end) /\
  (forall z c z', In (z, c, z') (gzip ctx ctx') -> (z' = z /\ In z (cvars ctx)) \/ m < cid_id z' <= m1).
Proof.
  induction ctx as [|b r IH]; intros m ctx' vs cs m1 H; simpl in H.
  - inversion H; subst.
    split; [lia|]. split; [constructor|]. split; [intros k t []|]. split; [intros k t []|].
    split; [intros x c; simpl; auto | intros z c z' []].
  - destruct (N.eqb (cid_id (cbvar b)) 0) eqn:Z.
    + destruct (uqc r (m + 1)) as [[[c0 v0] k0] m0] eqn:U.
      destruct (IH _ _ _ _ _ U) as (L & CL & FV & FC & SP & GE).
      apply N.eqb_eq in Z.
      assert (HEAD : forall nb, cbchi nb = cbchi b -> cbty nb = cbty b -> cbvar nb = (cid_name (cbvar b), m + 1) ->
                forall vs cs, ((cbchi b = CPrd /\ vs = (cbvar b, CXVar CPrd (cbvar nb) (cbty b)) :: v0 /\ cs = k0) \/
                               (cbchi b = CCns /\ vs = v0 /\ cs = (cbvar b, CXVar CCns (cbvar nb) (cbty b)) :: k0)) ->
                m <= m0 /\ ctx_like (b :: r) (nb :: c0) /\ fresh_rng (b :: r) m m0 vs /\ fresh_rng (b :: r) m m0 cs /\
                (forall x c, match gfind (gzip (b :: r) (nb :: c0)) x with
                             | Some (ch, x') => ch = c -> sname (subst_find x (sel c vs cs)) x = x'
                             | None => subst_find x vs = None /\ subst_find x cs = None /\ ~ In x (cvars (b :: r))
                             end) /\
                (forall z c z', In (z, c, z') (gzip (b :: r) (nb :: c0)) -> (z' = z /\ In z (cvars (b :: r))) \/ m < cid_id z' <= m0)).
      { intros nb NB1 NB2 NB3 vs1 cs1 SHAPE.
        assert (FVr : fresh_rng (b :: r) m m0 v0) by (apply fresh_rng_cons_ctx; eapply fresh_rng_lo; eauto; lia).
        assert (FCr : fresh_rng (b :: r) m m0 k0) by (apply fresh_rng_cons_ctx; eapply fresh_rng_lo; eauto; lia).
        assert (NEW : forall ch, exists ch0 n ty, CXVar ch (cbvar nb) (cbty b) = CXVar ch0 n ty /\ m < cid_id n <= m0 /\
                        In (cbvar b) (cvars (b :: r)) /\ cid_id (cbvar b) = 0).
        { intros ch. exists ch, (cbvar nb), (cbty b). rewrite NB3. simpl. repeat split; auto; lia. }
        split; [lia|]. split; [constructor; auto|].
        split; [|split; [|split]].
        - destruct SHAPE as [(_ & -> & _)|(_ & -> & _)]; auto.
          intros k t [I|I]; [inversion I; subst; apply NEW | apply FVr; exact I].
        - destruct SHAPE as [(_ & _ & ->)|(_ & _ & ->)]; auto.
          intros k t [I|I]; [inversion I; subst; apply NEW | apply FCr; exact I].
        - intros x c. simpl. destruct (cident_eqb (cbvar b) x) eqn:E.
          + intros <-. apply cident_eqb_eq in E. subst x.
            destruct SHAPE as [(S1 & -> & ->)|(S1 & -> & ->)]; rewrite S1; simpl; rewrite cident_eqb_refl; reflexivity.
          + specialize (SP x c). destruct (gfind (gzip r c0) x) as [[ch x']|].
            * intros Q. rewrite <- (SP Q).
              destruct SHAPE as [(S1 & -> & ->)|(S1 & -> & ->)]; destruct c; simpl; rewrite ?E; reflexivity.
            * destruct SP as (S1 & S2 & S3).
              destruct SHAPE as [(_ & -> & ->)|(_ & -> & ->)]; simpl; rewrite ?E; repeat split; auto;
                (intros [Q|Q]; [subst; rewrite cident_eqb_refl in E; discriminate | auto]).
        - intros z c z' [I|I].
          + inversion I; subst. right. rewrite NB3. simpl. lia.
          + destruct (GE _ _ _ I) as [[Q1 Q2]|Q]; [left; simpl; auto | right; lia]. }
      destruct (cbchi b) eqn:CH; inversion H; subst;
        (eapply (HEAD (mkcb (cid_name (cbvar b), m + 1) _ (cbty b))); simpl; eauto).
    + destruct (uqc r m) as [[[c0 v0] k0] m0] eqn:U. inversion H; subst.
      destruct (IH _ _ _ _ _ U) as (L & CL & FV & FC & SP & GE).
      apply N.eqb_neq in Z.
      split; [lia|]. split; [constructor; auto|].
      split; [apply fresh_rng_cons_ctx; exact FV|]. split; [apply fresh_rng_cons_ctx; exact FC|]. split.
      * intros x c. simpl. destruct (cident_eqb (cbvar b) x) eqn:E.
        -- intros _. apply cident_eqb_eq in E. subst x.
           assert (N1 : forall s, fresh_rng r m m1 s -> subst_find (cbvar b) s = None).
           { intros s F. apply subst_find_none. intros Q. unfold keys in Q. apply in_map_iff in Q.
             destruct Q as ([k t] & EQ & Q). simpl in EQ. subst k.
             destruct (F _ _ Q) as (? & ? & ? & _ & _ & _ & D). congruence. }
           destruct c; simpl; rewrite N1; auto.
        -- specialize (SP x c). destruct (gfind (gzip r c0) x) as [[ch x']|]; [exact SP|].
           destruct SP as (S1 & S2 & S3). repeat split; auto.
           intros [Q|Q]; [subst; rewrite cident_eqb_refl in E; discriminate | auto].
      * intros z c z' [I|I].
        -- inversion I; subst. left. simpl. auto.
        -- destruct (GE _ _ _ I) as [[Q1 Q2]|Q]; [left; simpl; auto | right; lia].
Qed.

Lemma ctx_like_length : forall ctx ctx', ctx_like ctx ctx' -> List.length ctx = List.length ctx'.
Proof. induction 1; simpl; congruence. Qed.

Lemma uqc_GOK : forall ctx m ctx' vs cs m1 T G,
  uqc ctx m = (ctx', vs, cs, m1) -> GOK T m G -> T <= m -> forallb (fun i => N.leb i T) (cids ctx) = true ->
  GOK T m1 (gzip ctx ctx' ++ G).
Proof.
  induction ctx as [|b r IH]; intros m ctx' vs cs m1 T G H K LT IDS; simpl in H.
  - inversion H; subst. exact K.
  - simpl in IDS. apply andb_true_iff in IDS. destruct IDS as [I0 IDS]. apply N.leb_le in I0.
    destruct (N.eqb (cid_id (cbvar b)) 0) eqn:Z.
    + destruct (uqc r (m + 1)) as [[[c0 v0] k0] m0] eqn:U.
      assert (K1 : GOK T (m + 1) G) by (eapply GOK_mono; [exact K | lia]).
      assert (LT1 : T <= m + 1) by lia.
      pose proof (IH _ _ _ _ _ T G U K1 LT1 IDS) as KR.
      destruct (uqc_spec _ _ _ _ _ _ U) as (L & _ & _ & _ & _ & GE).
      assert (HD : forall ch, GOK T m0 ((cbvar b, ch, (cid_name (cbvar b), m + 1)) :: gzip r c0 ++ G)).
      { intros ch. constructor; auto. right. split; [simpl; lia|].
        intros z c z' I Q. subst z'. apply in_app_or in I. destruct I as [I|I].
        - destruct (GE _ _ _ I) as [[Q1 Q2]|Q]; [|simpl in Q; lia].
          subst z. unfold cvars in Q2. apply in_map_iff in Q2. destruct Q2 as (b2 & Q2 & Q3).
          rewrite forallb_forall in IDS. assert (Q4 : In (cid_id (cbvar b2)) (cids r)) by (unfold cids; apply in_map_iff; eauto).
          specialize (IDS _ Q4). apply N.leb_le in IDS. rewrite Q2 in IDS. simpl in IDS. lia.
        - destruct (GOK_in _ _ _ _ _ _ K I) as [[Q1 Q2]|Q]; [subst z; simpl in Q2; lia | simpl in Q; lia]. }
      destruct (cbchi b) eqn:CH; inversion H; subst; simpl; rewrite CH; apply HD.
    + destruct (uqc r m) as [[[c0 v0] k0] m0] eqn:U. inversion H; subst. simpl.
      constructor; [eapply IH; eauto|]. left. split; [reflexivity | exact I0].
Qed.

(* J under the binders *)
Lemma subst_find_filter_keep : forall (g : cident -> bool) x s, g x = true ->
  subst_find x (filter (fun p => g (fst p)) s) = subst_find x s.
Proof.
  induction s as [|[k t] s IH]; simpl; intros Hg; [reflexivity|].
  destruct (g k) eqn:Gk; simpl.
  - destruct (cident_eqb k x); auto.
  - destruct (cident_eqb k x) eqn:E; auto. apply cident_eqb_eq in E. subst. congruence.
Qed.
Lemma subst_find_filter_drop : forall (g : cident -> bool) x s, g x = false ->
  subst_find x (filter (fun p => g (fst p)) s) = None.
Proof.
  intros g x s Hg. apply subst_find_none. intros Q. unfold keys in Q. apply in_map_iff in Q.
  destruct Q as ([k t] & EQ & Q). simpl in EQ. subst k. apply filter_In in Q. simpl in Q. destruct Q as [_ Q]. congruence.
Qed.
Lemma rvar0_filter : forall f s, rvar0 s -> rvar0 (filter f s).
Proof. intros f s H k t I. apply filter_In in I. apply H with k. tauto. Qed.
Lemma rvar0_app : forall a b, rvar0 a -> rvar0 b -> rvar0 (a ++ b).
Proof. intros a b Ha Hb k t I. apply in_app_or in I. destruct I; [eapply Ha | eapply Hb]; eauto. Qed.
Lemma sel_app : forall c a b a' b', sel c (a ++ b) (a' ++ b') = sel c a a' ++ sel c b b'.
Proof. destruct c; reflexivity. Qed.
Lemma sel_filter : forall c f P C, sel c (filter f P) (filter f C) = filter f (sel c P C).
Proof. destruct c; reflexivity. Qed.

(* a kept mu binder *)
Lemma J_keep : forall G P C v ch, J G P C -> J ((v, ch, v) :: G) (subst_remove v P) (subst_remove v C).
Proof.
  intros G P C v ch (RP & RC & H). split; [apply rvar0_filter; exact RP|]. split; [apply rvar0_filter; exact RC|].
  intros x c SC. unfold scoped_at, img in *. simpl in *. unfold subst_remove. rewrite sel_filter.
  destruct (cident_eqb v x) eqn:E.
  - apply cident_eqb_eq in E. subst x.
    rewrite (subst_find_filter_drop (fun k => negb (cident_eqb k v))); [reflexivity | rewrite cident_eqb_refl; reflexivity].
  - rewrite (subst_find_filter_keep (fun k => negb (cident_eqb k v))).
    + apply H. exact SC.
    + destruct (cident_eqb x v) eqn:E2; [apply cident_eqb_eq in E2; subst; rewrite cident_eqb_refl in E; discriminate | reflexivity].
Qed.

(* a renamed mu binder: the new pair goes to the list of the binder's chirality *)
Lemma J_rename : forall G P C v nv ty ch, J G P C -> cid_id nv <> 0 ->
  J ((v, ch, nv) :: G)
    (match ch with CPrd => (v, CXVar CPrd nv ty) :: subst_remove v P | CCns => subst_remove v P end)
    (match ch with CPrd => subst_remove v C | CCns => (v, CXVar CCns nv ty) :: subst_remove v C end).
Proof.
  intros G P C v nv ty ch (RP & RC & H) NZ.
  assert (R1 : forall c s, rvar0 s -> rvar0 ((v, CXVar c nv ty) :: subst_remove v s)).
  { intros c s R k t [I|I]; [inversion I; subst; eauto | eapply rvar0_filter; eauto]. }
  split; [destruct ch; [apply R1; auto | apply rvar0_filter; auto]|].
  split; [destruct ch; [apply rvar0_filter; auto | apply R1; auto]|].
  intros x c SC. unfold scoped_at, img in *. simpl in *.
  destruct (cident_eqb v x) eqn:E.
  - apply cident_eqb_eq in E. subst x. subst c. destruct ch; simpl; rewrite cident_eqb_refl; reflexivity.
  - assert (KEEP : forall s, subst_find x (subst_remove v s) = subst_find x s).
    { intros s. unfold subst_remove. apply (subst_find_filter_keep (fun k => negb (cident_eqb k v))).
      destruct (cident_eqb x v) eqn:E2; [apply cident_eqb_eq in E2; subst; rewrite cident_eqb_refl in E; discriminate | reflexivity]. }
    rewrite <- (H x c SC).
    destruct ch; destruct c; simpl; rewrite ?E, KEEP; reflexivity.
Qed.

(* a clause / definition context *)
Lemma J_ctx : forall G P C ctx m ctx' vs cs m1, J G P C -> uqc ctx m = (ctx', vs, cs, m1) ->
  J (gzip ctx ctx' ++ G) (vs ++ subst_remove_ctx ctx P) (cs ++ subst_remove_ctx ctx C).
Proof.
  intros G P C ctx m ctx' vs cs m1 (RP & RC & H) U.
  destruct (uqc_spec _ _ _ _ _ _ U) as (L & CL & FV & FC & SP & GE).
  assert (RF : forall s, fresh_rng ctx m m1 s -> rvar0 s).
  { intros s F k t I. destruct (F k t I) as (ch & n & ty & A & B & _). exists ch, n, ty. split; auto. lia. }
  split; [apply rvar0_app; [apply RF; exact FV | apply rvar0_filter; exact RP]|].
  split; [apply rvar0_app; [apply RF; exact FC | apply rvar0_filter; exact RC]|].
  intros x c SC. unfold scoped_at, img in *. rewrite gfind_app in *. rewrite sel_app, subst_find_app.
  specialize (SP x c). destruct (gfind (gzip ctx ctx') x) as [[ch x']|] eqn:GF.
  - specialize (SP SC). destruct (subst_find x (sel c vs cs)) as [t|] eqn:SF; [exact SP|].
    (* kept binder of the context: filtered out of the outer substitution *)
    unfold subst_remove_ctx. rewrite sel_filter.
    rewrite (subst_find_filter_drop (fun k => negb (existsb (cident_eqb k) (cvars ctx)))); [exact SP|].
    apply negb_false_iff. apply existsb_exists. apply gfind_in in GF.
    assert (IN : forall a a' z c0 z', In (z, c0, z') (gzip a a') -> In z (cvars a)).
    { induction a as [|b0 a IHa]; intros [|b0' a'] z c0 z' I; simpl in I; try contradiction.
      destruct I as [I|I]; [inversion I; subst; simpl; auto | right; eapply IHa; eauto]. }
    exists x. split; [eapply IN; eauto | apply cident_eqb_refl].
  - destruct SP as (S1 & S2 & S3).
    assert (SN : subst_find x (sel c vs cs) = None) by (destruct c; assumption). rewrite SN.
    unfold subst_remove_ctx. rewrite sel_filter.
    rewrite (subst_find_filter_keep (fun k => negb (existsb (cident_eqb k) (cvars ctx)))).
    + apply H. exact SC.
    + apply negb_true_iff. destruct (existsb (cident_eqb x) (cvars ctx)) eqn:EX; [|reflexivity].
      apply existsb_exists in EX. destruct EX as (y & Iy & Ey). apply cident_eqb_eq in Ey. subst y. contradiction.
Qed.
