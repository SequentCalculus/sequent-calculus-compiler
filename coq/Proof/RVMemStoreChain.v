(* C09 on RISC-V: `r_store` of ANY number of variables (objects chained over several blocks, axcut2rv64 memory.rs
   store_fields with block positions) refines `Heap.alloc_object` on the ISA semantics Sem/RVSem.v.  The RISC-V
   counterpart of Proof/X86MemStoreChain.v + X86MemStoreFull.v and of Proof/A64MemStoreChain.v, in ONE version (the
   strongest: refinement, words of the new object, chain, frame of registers and heap words):
     sv_spec_fields / sv_spec_frame   the word-level specification of `store_values` (Proof/RVSel.v), characterised
                                      field by field, for any capacity <= 3;
     rv_acquire_block_m     `acquire_block` from machine-level preconditions, with the frame of the non-header words;
     rv_store_block         one round of store_fields: (link,) values, acquire_block = one `Heap.alloc`;
     rv_store_fields_other  the continuation blocks (BlockPosition::Other);
     rv_store_chain         r_store to_store remaining = Heap.alloc_object (fsts ...), the data and pointer words of
                            every stored variable addressed through the chain, the chain = the acquired blocks;
     rv_store_full          its instance for at most three variables: one block, `Heap.alloc` of the padded fields.
   RISC-V has no spill slots: a temporary is a register, `rtp k` = X(k + 4).
   SHARED WITH x86-64 / AArch64 (qualified names, nothing copied; `is_blk`, `st_eqB`, `acq_ok` of the RISC-V files are
   convertible with the x86-64 ones because the ISA models place the heap at the same addresses): chain_pre,
   alloc_object_pre, alloc_congr, store_other_*, rest_len (Proof/X86MemStoreChain.v), chain_acq, alloc_object_acq
   (X86HeapAcq.v), wblocks, waddrs (X86HeapDefs.v), blk_words, chain_holds and their lemmas, chain_acq_congr,
   frame_blocks (X86MemStoreFull.v), nbo (X86MemLoadChain.v). *)
From Coq Require Import List ZArith NArith String Bool Lia FMapPositive.
From SCC Require Import Base.Sexp Lang.AxSyn Sem.AxSem Sem.AxHeap Model.Backend Model.RV Sem.RVSem Generated.Constants
     Proof.RVSel Proof.RVHeapAbs Proof.RVHDefs Proof.RVHMem.
From SCC Require Model.Heap Proof.X86Mem Proof.X86MemFrame Proof.X86MemStore Proof.X86MemStoreChain
     Proof.X86MemLoadChain Proof.X86HeapDefs Proof.X86HeapAcq Proof.X86MemStoreFull.
Import ListNotations.
Open Scope list_scope.
Open Scope Z_scope.

Notation chain_pre := X86MemStoreChain.chain_pre.
Notation alloc_object_pre := X86MemStoreChain.alloc_object_pre.
Notation rest_len := X86MemStoreChain.rest_len.
Notation chain_acq := X86HeapAcq.chain_acq.
Notation alloc_object_acq := X86HeapAcq.alloc_object_acq.
Notation wblocks := X86HeapDefs.wblocks.
Notation waddrs := X86HeapDefs.waddrs.
Notation blk_words := X86MemStoreFull.blk_words.
Notation chain_holds := X86MemStoreFull.chain_holds.
Notation nbo := X86MemLoadChain.nbo.
Notation xfsts := X86MemStore.fsts.
Notation xfst_slot := X86MemStore.fst_slot.
Notation xsnd_slot := X86MemStore.snd_slot.

Lemma fo_val n k : field_offset n k = 16 + 16 * Z.of_N k + 8 * Z.of_N (tnum_n n).
Proof. rewrite field_offset_val. lia. Qed.

(* the zeros written by store_zeros *)
Lemma zeros_other b : forall ff w a, (forall k, (k < ff)%N -> a <> b + 16 + 16 * Z.of_N k) ->
  fold_left (fun w k => upd w (b + field_offset Fst k) 0) (nseq 0 ff) w a = w a.
Proof.
  intros ff. induction ff as [|ff IH] using N.peano_ind; intros w a H; [reflexivity|].
  rewrite nseq_succ, fold_left_app. cbn [fold_left]. rewrite upd_other.
  - apply IH. intros k Hk. apply H. lia.
  - rewrite fo_val. cbn [tnum_n]. specialize (H ff ltac:(lia)). lia.
Qed.
Lemma zeros_at b : forall ff w k, (k < ff)%N ->
  fold_left (fun w k => upd w (b + field_offset Fst k) 0) (nseq 0 ff) w (b + 16 + 16 * Z.of_N k) = 0.
Proof.
  intros ff. induction ff as [|ff IH] using N.peano_ind; intros w k H; [lia|].
  rewrite nseq_succ, fold_left_app. cbn [fold_left]. rewrite fo_val. cbn [tnum_n].
  destruct (N.eq_dec k ff) as [->|NE].
  - apply upd_eq. lia.
  - rewrite upd_other by lia. apply IH. lia.
Qed.

Lemma sv_spec_frame s : forall l E b ff w a, (N.of_nat (List.length l) <= ff)%N ->
  (a < b + 16 \/ b + 16 + 16 * Z.of_N ff <= a) -> sv_spec s l E b ff w a = w a.
Proof.
  induction l as [|x l IH]; intros E b ff w a L Ha; cbn [sv_spec].
  - apply zeros_other. intros k Hk. lia.
  - cbn [List.length] in L. rewrite IH by lia. rewrite !fo_val. cbn [tnum_n]. rewrite !upd_other by lia. reflexivity.
Qed.
Lemma sv_spec_fields s : forall l E b ff w, (N.of_nat (List.length l) <= ff)%N ->
  (forall i x, nth_error l i = Some x ->
     sv_spec s l E b ff w (b + 16 + 16 * Z.of_N (ff - 1 - N.of_nat i)) =
       (match bchi x with Ext => 0 | _ => regv s (pos_reg Fst (E + (List.length l - 1 - i))) end) /\
     sv_spec s l E b ff w (b + 16 + 16 * Z.of_N (ff - 1 - N.of_nat i) + 8) = regv s (pos_reg Snd (E + (List.length l - 1 - i)))) /\
  (forall j, (j < ff - N.of_nat (List.length l))%N -> sv_spec s l E b ff w (b + 16 + 16 * Z.of_N j) = 0).
Proof.
  induction l as [|x l IH]; intros E b ff w L.
  - split; [intros i x Hi; destruct i; discriminate|]. intros j Hj. cbn [sv_spec]. apply zeros_at. cbn [List.length] in Hj. lia.
  - cbn [List.length] in L. cbn [sv_spec].
    set (w2 := upd (upd w (b + field_offset Snd (ff - 1)) (regv s (pos_reg Snd (E + List.length l))))
                   (b + field_offset Fst (ff - 1)) (match bchi x with Ext => 0 | _ => regv s (pos_reg Fst (E + List.length l)) end)).
    destruct (IH E b (ff - 1)%N w2 ltac:(lia)) as [F Z0]. split.
    + intros i y Hi. destruct i as [|i]; cbn [nth_error] in Hi.
      * inversion Hi; subst y. cbn [List.length]. replace (S (List.length l) - 1 - 0)%nat with (List.length l) by lia.
        replace (ff - 1 - N.of_nat 0)%N with (ff - 1)%N by lia.
        rewrite !sv_spec_frame by lia. unfold w2. rewrite !fo_val. cbn [tnum_n]. split.
        -- apply upd_eq. lia.
        -- rewrite upd_other by lia. apply upd_eq. lia.
      * destruct (F i y Hi) as [F1 F2]. cbn [List.length].
        replace (ff - 1 - N.of_nat (S i))%N with (ff - 1 - 1 - N.of_nat i)%N by lia.
        replace (S (List.length l) - 1 - S i)%nat with (List.length l - 1 - i)%nat by lia. split; assumption.
    + intros j Hj. cbn [List.length] in Hj. apply Z0. lia.
Qed.

Lemma sv_defined_intro s : forall l E,
  (forall i x, nth_error l i = Some x ->
     rget s (pos_reg Snd (E + (List.length l - 1 - i))) <> None /\
     (bchi x <> Ext -> rget s (pos_reg Fst (E + (List.length l - 1 - i))) <> None)) ->
  sv_defined s l E.
Proof.
  induction l as [|x l IH]; intros E H; cbn [sv_defined]; [exact I|].
  destruct (H O x eq_refl) as [A B]. cbn [List.length] in A, B. replace (S (List.length l) - 1 - 0)%nat with (List.length l) in A, B by lia.
  split; [exact A|]. split; [exact B|]. apply IH. intros i y Hi. specialize (H (S i) y Hi). cbn [List.length] in H.
  now replace (S (List.length l) - 1 - S i)%nat with (List.length l - 1 - i)%nat in H by lia.
Qed.

Lemma nth_error_rev {X} (l : list X) i x : nth_error l i = Some x -> nth_error (rev l) (List.length l - 1 - i) = Some x.
Proof.
  intros H. assert (Li : (i < List.length l)%nat) by (apply nth_error_Some; congruence).
  rewrite nth_error_nth' with (d := x) by (rewrite rev_length; lia). f_equal.
  rewrite rev_nth by lia. replace (List.length l - S (List.length l - 1 - i))%nat with i by lia.
  now apply nth_error_nth.
Qed.
Lemma nth_error_rev_inv {X} (l : list X) i x : nth_error (rev l) i = Some x -> nth_error l (List.length l - 1 - i) = Some x.
Proof.
  intros H. assert (Li : (i < List.length l)%nat) by (rewrite <- rev_length; apply nth_error_Some; congruence).
  apply nth_error_rev in H. rewrite rev_involutive, rev_length in H.
  exact H.
Qed.

(* the words after store_values of `bs` (variable i at position E + i) into the ff fields of block rv *)
Lemma sv_spec_blk s val E bs rv ff w :
  vals_ok s val E bs -> (N.of_nat (List.length bs) <= ff)%N ->
  let w1 := sv_spec s (rev bs) E rv ff w in
  sv_defined s (rev bs) E /\
  blk_words w1 val E bs rv (N.to_nat ff) /\
  (forall a, a < rv + 16 \/ rv + 16 + 16 * Z.of_N ff <= a -> w1 a = w a).
Proof.
  intros V L w1. split; [|split].
  - apply sv_defined_intro. intros i x Hi. rewrite rev_length.
    assert (Li : (i < List.length bs)%nat) by (rewrite <- rev_length; apply nth_error_Some; congruence).
    apply nth_error_rev_inv in Hi.
    destruct (vals_regv s val E bs _ x V Hi) as (_ & _ & D1 & D2). split; assumption.
  - destruct (sv_spec_fields s (rev bs) E rv ff w ltac:(rewrite rev_length; exact L)) as [F Z0]. rewrite rev_length in *.
    split.
    + intros i b Hi. assert (Li : (i < List.length bs)%nat) by (apply nth_error_Some; congruence).
      destruct (F _ b (nth_error_rev bs i b Hi)) as [F1 F2].
      replace (List.length bs - 1 - (List.length bs - 1 - i))%nat with i in F1, F2 by lia.
      destruct (vals_regv s val E bs i b V Hi) as (S0 & F0 & _ & _).
      replace (rv + 16 + 16 * Z.of_nat (N.to_nat ff - List.length bs + i))
        with (rv + 16 + 16 * Z.of_N (ff - 1 - N.of_nat (List.length bs - 1 - i))) by lia.
      unfold w1. rewrite F1, F2. split; [exact F0|exact S0].
    + intros j Hj. replace (rv + 16 + 16 * Z.of_nat j) with (rv + 16 + 16 * Z.of_N (N.of_nat j)) by lia. apply Z0. lia.
  - intros a Ha. apply sv_spec_frame; [rewrite rev_length; exact L|exact Ha].
Qed.

(* the pointer slots of a block whose fields hold `bs` *)
Lemma blk_words_slots3 w val E bs rv : blk_words w val E bs rv 3 -> (List.length bs <= 3)%nat ->
  [w (rv + 16); w (rv + 32); w (rv + 48)] = Heap.pad 3 (xfsts val E bs).
Proof.
  intros (B1 & B2) L.
  destruct bs as [|b0 [|b1 [|b2 [|]]]]; cbn [List.length] in *; try lia; unfold Heap.pad; cbn [X86MemStore.fsts List.length Nat.sub repeat app].
  - pose proof (B2 0%nat ltac:(lia)) as Z0. pose proof (B2 1%nat ltac:(lia)) as Z1. pose proof (B2 2%nat ltac:(lia)) as Z2.
    cbn in Z0, Z1, Z2. rewrite Z.add_0_r in Z0. rewrite <- Z.add_assoc in Z1, Z2. cbn in Z1, Z2. now rewrite Z0, Z1, Z2.
  - pose proof (B2 0%nat ltac:(lia)) as Z0. pose proof (B2 1%nat ltac:(lia)) as Z1. destruct (B1 0%nat b0 eq_refl) as [A _].
    cbn in Z0, Z1, A. rewrite Z.add_0_r in Z0. rewrite <- Z.add_assoc in Z1, A. cbn in Z1, A. rewrite Nat.add_0_r in A. now rewrite Z0, Z1, A.
  - pose proof (B2 0%nat ltac:(lia)) as Z0. destruct (B1 0%nat b0 eq_refl) as [A _]. destruct (B1 1%nat b1 eq_refl) as [B _].
    cbn in Z0, A, B. rewrite Z.add_0_r in Z0. rewrite <- Z.add_assoc in A, B. cbn in A, B. rewrite Nat.add_0_r in A.
    rewrite Z0, A, B. repeat f_equal; lia.
  - destruct (B1 0%nat b0 eq_refl) as [A _]. destruct (B1 1%nat b1 eq_refl) as [B _]. destruct (B1 2%nat b2 eq_refl) as [C _].
    cbn in A, B, C. rewrite Z.add_0_r in A. rewrite <- Z.add_assoc in B, C. cbn in B, C. rewrite Nat.add_0_r in A.
    rewrite A, B, C. repeat f_equal; lia.
Qed.
Lemma blk_words_slots2 w val E bs rv : blk_words w val E bs rv 2 -> (List.length bs <= 2)%nat ->
  [w (rv + 16); w (rv + 32)] = Heap.pad 2 (xfsts val E bs).
Proof.
  intros (B1 & B2) L.
  destruct bs as [|b0 [|b1 [|]]]; cbn [List.length] in *; try lia; unfold Heap.pad; cbn [X86MemStore.fsts List.length Nat.sub repeat app].
  - pose proof (B2 0%nat ltac:(lia)) as Z0. pose proof (B2 1%nat ltac:(lia)) as Z1.
    cbn in Z0, Z1. rewrite Z.add_0_r in Z0. rewrite <- Z.add_assoc in Z1. cbn in Z1. now rewrite Z0, Z1.
  - pose proof (B2 0%nat ltac:(lia)) as Z0. destruct (B1 0%nat b0 eq_refl) as [A _].
    cbn in Z0, A. rewrite Z.add_0_r in Z0. rewrite <- Z.add_assoc in A. cbn in A. rewrite Nat.add_0_r in A. now rewrite Z0, A.
  - destruct (B1 0%nat b0 eq_refl) as [A _]. destruct (B1 1%nat b1 eq_refl) as [B _].
    cbn in A, B. rewrite Z.add_0_r in A. rewrite <- Z.add_assoc in B. cbn in B. rewrite Nat.add_0_r in A.
    rewrite A, B. repeat f_equal; lia.
Qed.

Lemma vals_ok_keep s s' val E bs :
  (forall k, (2 * N.of_nat E <= k < 2 * N.of_nat (E + List.length bs))%N -> rget s' (rtp k) = rget s (rtp k)) ->
  vals_ok s val E bs -> vals_ok s' val E bs.
Proof.
  intros K V i b Hi. assert (Li : (i < List.length bs)%nat) by (apply nth_error_Some; congruence).
  destruct (V i b Hi) as [A B]. split.
  - rewrite K by lia. exact A.
  - intros Hb. rewrite K by lia. auto.
Qed.
Lemma vals_ok_app_l s val E a b : vals_ok s val E (a ++ b) -> vals_ok s val E a.
Proof. intros H i x Hi. apply H. rewrite nth_error_app1; auto. apply nth_error_Some. congruence. Qed.
Lemma vals_ok_app_r s val E a b : vals_ok s val E (a ++ b) -> vals_ok s val (E + List.length a) b.
Proof.
  intros H i x Hi. specialize (H (List.length a + i)%nat x).
  rewrite nth_error_app2 in H by lia. replace (List.length a + i - List.length a)%nat with i in H by lia. specialize (H Hi).
  now replace (E + (List.length a + i))%nat with (E + List.length a + i)%nat in H by lia.
Qed.

(* acquire_block from machine-level preconditions *)
Definition mbounded (k : Z) (s : rstate) (f : Z) : Prop :=
  (forall x, is_blk x -> min_int + k <= hword s x <= max_int) /\ min_int + k <= f <= max_int.

Lemma acq_ok_machine F s :
  acq_ok (abs_heap F s) ->
  exists rv h2, rget s HEAP = Some rv /\ is_blk rv /\ rget s FREE = Some h2 /\
    (hword s rv = 0 -> is_blk h2) /\
    (hword s rv = 0 -> hword s h2 <> 0 ->
       (forall off, off = 16 \/ off = 32 \/ off = 48 -> hword s (h2 + off) = 0 \/ is_blk (hword s (h2 + off))) /\
       mbounded 3 s (hword s h2)).
Proof.
  intros (A1 & A2 & A3 & A4). cbn [abs_heap Heap.heap Heap.free Heap.m] in *.
  pose proof (reg_or0_blk s HEAP A1) as RH. pose proof (reg_or0_nz s FREE A2) as RF.
  exists (reg_or0 s HEAP), (reg_or0 s FREE). split; [exact RH|]. split; [exact A1|]. split; [exact RF|]. split; [exact A3|].
  intros H0 Hn0. destruct (A4 H0 Hn0) as (K & B1 & B2). cbn [abs_mem Heap.ps Heap.hdr] in *. split; [|split; [exact B1|exact B2]].
  inversion K as [|? ? K1 K']; subst. inversion K' as [|? ? K2 K'']; subst. inversion K'' as [|? ? K3 _]; subst.
  intros off [->|[->| ->]]; assumption.
Qed.

Section Chain.
Variable im : image.

Lemma rv_acquire_block_m i t t2 lc s F rv h2 :
  placed im i (fst (acquire_block t t2 lc)) ->
  (4 <= t)%N -> (4 <= t2)%N -> t <> t2 ->
  rget s HEAP = Some rv -> is_blk rv -> rget s FREE = Some h2 ->
  (hword s rv = 0 -> is_blk h2) ->
  (hword s rv = 0 -> hword s h2 <> 0 ->
     (forall off, off = 16 \/ off = 32 \/ off = 48 -> hword s (h2 + off) = 0 \/ is_blk (hword s (h2 + off))) /\
     mbounded 3 s (hword s h2)) ->
  exists s',
    star im i s (padd i (List.length (fst (acquire_block t t2 lc)))) s' /\
    st_eqB (abs_heap (Heap.frontier (snd (Heap.acquire (abs_heap F s)))) s') (snd (Heap.acquire (abs_heap F s))) /\
    rget s' t = Some rv /\ fst (Heap.acquire (abs_heap F s)) = rv /\
    (forall r, r <> t -> r <> t2 -> r <> TEMP -> r <> HEAP -> r <> FREE -> rget s' r = rget s r) /\
    (forall a, ~ is_blk a -> hword s' a = hword s a).
Proof.
  intros PL T4 U4 TU HH HB HF HB2 HCH.
  pose proof (represents_own s rv h2 HH HF) as RP. set (h := own_heap s) in *.
  assert (EH : hp h = rv) by (unfold h, own_heap, reg_or0; cbn [hp]; now rewrite HH).
  assert (EF : fp h = h2) by (unfold h, own_heap, reg_or0; cbn [fp]; now rewrite HF).
  assert (EW : words h = hword s) by reflexivity.
  assert (CHD : words h (hp h) = 0 -> words h (fp h) <> 0 ->
     let hh := {| words := upd (words h) (fp h) 0; hp := fp h; fp := words h (fp h) |} in
     let c0 := words hh (fp h + 16) in let c1 := words hh (fp h + 32) in let c2 := words hh (fp h + 48) in
     child_ok hh c0 /\ child_ok (a_erase c0 hh) c1 /\ child_ok (a_erase c1 (a_erase c0 hh)) c2).
  { rewrite EH, EF, EW. intros E0 FN. destruct (HCH E0 FN) as (KD & BD & BF). pose proof (HB2 E0) as HB2'.
    refine (children_from_bounded {| words := upd (hword s) h2 0; hp := h2; fp := hword s h2 |} h2 HB2' _ _ _ _).
    - split; cbn [words fp]; [|exact BF]. intros x Hx. unfold upd. destruct (x =? h2); [unfold min_int, max_int, two63; lia|apply BD; exact Hx].
    - cbn [words]. rewrite upd_other by lia. apply KD; auto.
    - cbn [words]. rewrite upd_other by lia. apply KD; auto.
    - cbn [words]. rewrite upd_other by lia. apply KD; auto. }
  destruct (habs_acquire F h) as (AF & AS & CO).
  { rewrite EH. exact HB. }
  { rewrite EH, EF, EW. exact HB2. }
  { exact CHD. }
  assert (NZ : forall r, (4 <= r)%N -> r <> ZERO /\ r <> TEMP /\ r <> HEAP /\ r <> FREE).
  { intros r Hr. change ZERO with 0%N. change TEMP with 1%N. change HEAP with 2%N. change FREE with 3%N. lia. }
  destruct (NZ t T4) as (T0 & T1 & T2 & T3). destruct (NZ t2 U4) as (U0 & U1 & U2 & U3).
  destruct (rv_acquire_block_refines im i t t2 lc s h PL T0 T1 T2 T3 U0 U1 U2 U3 TU RP) as (s' & ST & RP' & RT & KR).
  { rewrite EH. now apply is_blk_valid_addr. }
  { rewrite EH, EF, EW. intros E. apply is_blk_valid_block. now apply HB2. }
  { exact CO. }
  assert (AQ : Heap.acquire (abs_heap F s) = Heap.acquire (habs F h)) by reflexivity.
  assert (FA : fst (a_acquire h) = rv).
  { unfold a_acquire. rewrite EH. destruct (negb _); [reflexivity|]. destruct (_ =? 0); reflexivity. }
  exists s'. split; [exact ST|]. split; [|split; [|split; [|split; [exact KR|]]]].
  - rewrite AQ. eapply st_eqB_trans; [apply (represents_abs _ _ _ RP')|exact AS].
  - rewrite RT. f_equal. exact FA.
  - rewrite AQ, <- AF. exact FA.
  - intros a Ha. destruct RP' as (W & _). rewrite W. apply a_acquire_nonblk.
    + rewrite EH. exact HB.
    + rewrite EH, EF, EW. exact HB2.
    + intros E0 FN. destruct (CHD E0 FN) as ((B0 & _) & (B1 & _) & (B2 & _)). cbn [words] in B0, B1, B2.
      rewrite !upd_other in B0, B1, B2 by lia. auto.
    + exact Ha.
Qed.

(* one round of store_fields *)
Definition link_code (bp : block_position) (remaining to_store : ctx) : res (list rcode) :=
  match bp with Other => store_field Fst (remaining ++ to_store) HEAP (FIELDS_PER_BLOCK - 1) | Last => Ok [] end.

Lemma store_fields_unfold fuel to_store remaining bp lc cs lc' :
  to_store <> [] -> store_fields (S fuel) to_store remaining bp lc = Ok (cs, lc') ->
  let rl := rest_len (List.length to_store) (3 - bp_n bp) in
  let p := List.length (remaining ++ firstn rl to_store) in
  exists c0 sv c3,
    link_code bp remaining to_store = Ok c0 /\
    store_values (rev (skipn rl to_store)) (remaining ++ firstn rl to_store) HEAP (3 - bp_n bp) = Ok sv /\
    (p < 14)%nat /\
    store_fields fuel (firstn rl to_store) remaining Other (snd (acquire_block (pos_reg Fst p) (pos_reg Snd p) lc)) = Ok (c3, lc') /\
    cs = c0 ++ sv ++ fst (acquire_block (pos_reg Fst p) (pos_reg Snd p) lc) ++ c3.
Proof.
  intros Hne H rl p. cbn [store_fields] in H. destruct to_store as [|x r]; [contradiction|].
  change (FIELDS_PER_BLOCK - bp_n bp)%N with (3 - bp_n bp)%N in H.
  fold (X86MemStoreChain.rest_len (List.length (x :: r)) (3 - bp_n bp)) in H. fold rl in H.
  fold (link_code bp remaining (x :: r)) in H.
  destruct (link_code bp remaining (x :: r)) as [c0|] eqn:E0; [|discriminate]. cbn [rbind] in H.
  destruct (store_values (rev (skipn rl (x :: r))) (remaining ++ firstn rl (x :: r)) HEAP (3 - bp_n bp)) as [sv|] eqn:Esv; [|discriminate].
  cbn [rbind] in H.
  destruct (r_fresh Fst (remaining ++ firstn rl (x :: r))) as [t|] eqn:Et; [|discriminate]. cbn [rbind] in H.
  destruct (r_fresh Snd (remaining ++ firstn rl (x :: r))) as [t2|] eqn:Et2; [|discriminate]. cbn [rbind] in H.
  assert (Hp : (p < 14)%nat).
  { unfold r_fresh, temporary_from_position in Et2. fold p in Et2. destruct (N.ltb_spec (2 * N.of_nat p + tnum_n Snd + RESERVED) REGISTER_NUM) as [L|L]; [|discriminate].
    cbn [tnum_n] in L. change RESERVED with 4%N in L. change REGISTER_NUM with 32%N in L. lia. }
  apply r_fresh_ok in Et. apply r_fresh_ok in Et2. subst t t2. fold p in H.
  destruct (acquire_block (pos_reg Fst p) (pos_reg Snd p) lc) as [c2 lc2] eqn:EA.
  destruct (store_fields fuel (firstn rl (x :: r)) remaining Other lc2) as [[c3 lc3]|] eqn:E3; [|discriminate]. cbn [rbind] in H.
  inversion H; subst. exists c0, sv, c3. cbn [fst snd]. auto.
Qed.


Lemma rv_store_block pos bp to_store remaining lc c0 sv s F val link :
  let E := List.length remaining in
  let n := List.length to_store in
  let cap := (3 - bp_n bp)%N in
  let rl := rest_len n cap in
  let t := pos_reg Fst (E + rl) in
  let t2 := pos_reg Snd (E + rl) in
  let acq := fst (acquire_block t t2 lc) in
  to_store <> [] ->
  link_code bp remaining to_store = Ok c0 ->
  store_values (rev (skipn rl to_store)) (remaining ++ firstn rl to_store) HEAP cap = Ok sv ->
  placed im pos (c0 ++ sv ++ acq) ->
  vals_ok s val E to_store ->
  (bp = Other -> rget s (pos_reg Fst (E + n)) = Some link) ->
  acq_ok (abs_heap F s) ->
  let P := Heap.pad (N.to_nat cap) (Heap.lastn (N.to_nat cap) (xfsts val E to_store)) ++ (match bp with Other => [link] | Last => [] end) in
  let res := Heap.alloc P (abs_heap F s) in
  let rv := Heap.heap (abs_heap F s) in
  exists s', star im pos s (padd pos (List.length (c0 ++ sv ++ acq))) s' /\
    st_eqB (abs_heap (Heap.frontier (snd res)) s') (snd res) /\
    rget s' t = Some (fst res) /\ is_blk (fst res) /\
    (forall r, (4 <= r)%N -> r <> t -> r <> t2 -> rget s' r = rget s r) /\
    fst res = rv /\
    blk_words (hword s') val (E + rl) (skipn rl to_store) rv (N.to_nat cap) /\
    (bp = Other -> hword s' (rv + 48) = link) /\
    (forall a, ~ is_blk a -> a < rv \/ rv + 64 <= a -> hword s' a = hword s a).
Proof.
  intros E n cap rl t t2 acq Hne Hc0 Hsv PL V Hlink AOK P res rv0.
  destruct (acq_ok_machine F s AOK) as (rv & h2 & R & Hb & Rf & Hb2 & Hch).
  assert (Erv : rv0 = rv) by (unfold rv0; cbn [abs_heap Heap.heap]; unfold reg_or0; now rewrite R).
  rewrite Erv. clear rv0 Erv.
  assert (Hcap : (cap = 3 \/ cap = 2)%N) by (unfold cap; destruct bp; cbn; auto).
  assert (Hrl : rl = (n - N.to_nat cap)%nat) by apply X86MemStoreChain.rest_len_val.
  assert (Hn1 : (1 <= n)%nat) by (unfold n; destruct to_store; [contradiction|cbn; lia]).
  assert (Hrln : (rl <= n)%nat) by lia.
  assert (Lfirst : List.length (firstn rl to_store) = rl) by (rewrite firstn_length; fold n; lia).
  assert (Lnext : List.length (skipn rl to_store) = (n - rl)%nat) by (rewrite skipn_length; reflexivity).
  assert (Lrr : List.length (remaining ++ firstn rl to_store) = (E + rl)%nat) by (rewrite app_length, Lfirst; reflexivity).
  apply placed_app in PL as [PL0 PL]. apply placed_app in PL as [PL1 PL2].
  pose proof (is_blk_valid_block rv Hb) as VB.
  (* the link *)
  assert (S0 : exists s0, star im pos s (padd pos (List.length c0)) s0 /\ (forall r, rget s0 r = rget s r) /\
            (forall a, hword s0 a = if (match bp with Other => true | Last => false end) && (a =? rv + 48) then link else hword s a)).
  { destruct bp; cbn [link_code] in Hc0.
    - inversion Hc0; subst c0. exists s. split; [apply star_refl|]. split; [reflexivity|]. reflexivity.
    - change (FIELDS_PER_BLOCK - 1)%N with 2%N in Hc0. unfold store_field in Hc0.
      destruct (r_fresh Fst (remaining ++ to_store)) as [tl|] eqn:ET; [|discriminate]. cbn [rbind] in Hc0. inversion Hc0; subst c0.
      apply r_fresh_ok in ET. rewrite app_length in ET. fold E n in ET. subst tl.
      destruct PL0 as [AC0 _].
      exists (sstore s (rv + field_offset Fst 2) link). split; [|split].
      + exec_next AC0 0%nat step_SW; [exact R|exact (Hlink eq_refl)|apply field_fits12; lia|apply field_valid; [exact VB|lia]|]. apply star_refl.
      + intros r. apply rget_sstore.
      + intros a. rewrite hword_sstore by (apply valid_pos, field_valid; [exact VB|lia]). change (field_offset Fst 2) with 48. reflexivity. }
  destruct S0 as (s0 & ST0 & RG0 & W0).
  assert (W0' : forall a, a <> rv + 48 -> hword s0 a = hword s a).
  { intros a Ha. rewrite W0. destruct (Z.eqb_spec a (rv + 48)); [contradiction|]. now rewrite andb_false_r. }
  (* the values *)
  assert (V1 : vals_ok s val (E + rl) (skipn rl to_store)).
  { rewrite <- Lfirst at 1. apply (vals_ok_app_r s val E (firstn rl to_store)). now rewrite firstn_skipn. }
  assert (Lcap : (N.of_nat (List.length (skipn rl to_store)) <= cap)%N) by (rewrite Lnext; lia).
  destruct (sv_spec_blk s val (E + rl) (skipn rl to_store) rv cap (hword s0) V1 Lcap) as (SD & BW & FRM).
  set (w1 := sv_spec s (rev (skipn rl to_store)) (E + rl) rv cap (hword s0)) in *.
  assert (Hff : (cap <= 3)%N) by (destruct Hcap as [-> | ->]; lia).
  destruct PL1 as [AC1 _].
  rewrite <- Lrr in SD.
  destruct (rv_store_values_refines im (rev (skipn rl to_store)) (remaining ++ firstn rl to_store) cap sv _ s0 s rv Hsv
              ltac:(rewrite rev_length; exact Lcap) Hff AC1 RG0 R VB SD) as (s1 & ST1 & RG1 & W1).
  rewrite Lrr in W1. fold w1 in W1.
  assert (R1 : rget s1 HEAP = Some rv) by (rewrite RG1; exact R).
  assert (Rf1 : rget s1 FREE = Some h2) by (rewrite RG1; exact Rf).
  assert (Hout : forall a, a < rv + 16 \/ rv + 64 <= a -> hword s1 a = hword s a).
  { intros a Ha. rewrite W1, FRM by lia. apply W0'. lia. }
  assert (Hdr : forall x, is_blk x -> hword s1 x = hword s x).
  { intros x Hx. apply Hout. destruct (Z.eq_dec x rv) as [->|Hne']; [lia|]. destruct (is_blk_apart x rv Hx Hb Hne'); lia. }
  assert (Hoth : forall x i, is_blk x -> x <> rv -> 0 <= i < 64 -> hword s1 (x + i) = hword s (x + i)).
  { intros x i Hx Hne' Hi. apply Hout. destruct (is_blk_apart x rv Hx Hb Hne'); lia. }
  assert (Hb21 : hword s1 rv = 0 -> is_blk h2) by (rewrite Hdr by auto; exact Hb2).
  assert (Hch1 : hword s1 rv = 0 -> hword s1 h2 <> 0 ->
     (forall off, off = 16 \/ off = 32 \/ off = 48 -> hword s1 (h2 + off) = 0 \/ is_blk (hword s1 (h2 + off))) /\
     mbounded 3 s1 (hword s1 h2)).
  { intros H0 Hn0. pose proof (Hb21 H0) as Hbh2.
    assert (Hne' : h2 <> rv) by (intros ->; contradiction).
    rewrite Hdr in H0, Hn0 by auto. destruct (Hch H0 Hn0) as [Kids [B1 B2]]. split.
    - intros off Hoff. rewrite Hoth by (auto; lia). now apply Kids.
    - rewrite Hdr by auto. split; [|exact B2]. intros x Hx. rewrite Hdr by auto. now apply B1. }
  assert (T4 : (4 <= t)%N) by apply pos_reg_reserved. assert (U4 : (4 <= t2)%N) by apply pos_reg_reserved.
  assert (TU : t <> t2) by (unfold t, t2; intros Eq; apply pos_reg_inj in Eq as [Eq _]; discriminate).
  destruct (rv_acquire_block_m _ t t2 lc s1 F rv h2 PL2 T4 U4 TU R1 Hb Rf1 Hb21 Hch1)
    as (s2 & ST2 & EQ2 & Rr & Ef & Oth & NB).
  (* the abstract side *)
  assert (RH : reg_or0 s HEAP = rv) by (unfold reg_or0; now rewrite R).
  assert (RF : reg_or0 s FREE = h2) by (unfold reg_or0; now rewrite Rf).
  assert (EP : [hword s1 (rv + 16); hword s1 (rv + 32); hword s1 (rv + 48)] = P).
  { unfold P. assert (EFS : xfsts val (E + rl) (skipn rl to_store) = Heap.lastn (N.to_nat cap) (xfsts val E to_store)).
    { rewrite X86MemStoreChain.fsts_skipn by (fold n; lia). unfold Heap.lastn. rewrite X86MemStore.fsts_length. fold n. now rewrite Hrl. }
    rewrite <- EFS. rewrite !W1. destruct bp; unfold cap in *; cbn [bp_n] in *.
    - change (3 - 0)%N with 3%N in *. change (N.to_nat 3) with 3%nat in *. rewrite app_nil_r.
      apply blk_words_slots3; [exact BW|rewrite Lnext; lia].
    - change (3 - 1)%N with 2%N in *. change (N.to_nat 2) with 2%nat in *.
      rewrite <- (blk_words_slots2 w1 val (E + rl) (skipn rl to_store) rv BW ltac:(rewrite Lnext; lia)).
      cbn [app]. f_equal. f_equal. f_equal. rewrite FRM by lia. rewrite W0, Z.eqb_refl. reflexivity. }
  set (A := {| Heap.m := Heap.set_ps (abs_mem s) rv P; Heap.heap := rv; Heap.free := h2; Heap.frontier := F |}).
  assert (Eres : res = Heap.acquire A).
  { unfold res, Heap.alloc, A. cbn [abs_heap Heap.m Heap.heap Heap.free Heap.frontier]. now rewrite RH, RF. }
  assert (EQ1' : st_eqB (abs_heap F s1) A).
  { split; [cbn [abs_heap Heap.heap A]; unfold reg_or0; now rewrite R1|].
    split; [cbn [abs_heap Heap.free A]; unfold reg_or0; now rewrite Rf1|]. split; [reflexivity|].
    intros x Hx. unfold A. cbn [abs_heap Heap.m]. unfold Heap.set_ps, Heap.upd.
    destruct (Z.eqb_spec x rv) as [->|Hne'].
    - unfold abs_mem at 1. rewrite EP. cbn [abs_mem Heap.hdr]. now rewrite Hdr.
    - unfold abs_mem. rewrite Hdr by exact Hx. rewrite !Hoth by (auto; lia). reflexivity. }
  destruct (acquire_st_eqB (abs_heap F s1) A EQ1') as [Efst Esnd].
  { exact Hb. }
  { unfold A. cbn [Heap.heap Heap.free Heap.m]. unfold Heap.set_ps. rewrite Heap.upd_same. cbn [Heap.hdr abs_mem]. exact Hb2. }
  { unfold A. cbn [Heap.heap Heap.free Heap.m]. unfold Heap.set_ps. rewrite Heap.upd_same. cbn [Heap.hdr abs_mem].
    intros H0 Hn0 c Hc. pose proof (Hb2 H0) as Hbh2. assert (Hne' : h2 <> rv).
    { intros ->. rewrite Heap.upd_same in Hn0. cbn [Heap.hdr] in Hn0. contradiction. }
    unfold Heap.upd in Hn0, Hc. destruct (Z.eqb_spec h2 rv); [contradiction|]. cbn [abs_mem Heap.hdr Heap.ps] in Hn0, Hc.
    destruct (Hch H0 Hn0) as [Kids _]. destruct Hc as [<-|[<-|[<-|[]]]]; apply Kids; auto. }
  assert (EFr : Heap.frontier (snd (Heap.acquire (abs_heap F s1))) = Heap.frontier (snd (Heap.acquire A)))
    by (destruct Esnd as (_ & _ & X & _); exact X).
  clearbody res. subst res.
  exists s2. split; [|split; [|split; [|split; [|split; [|split; [|split; [|split]]]]]]].
  - rewrite !app_length, !padd_add. eapply star_trans; [exact ST0|]. eapply star_trans; [exact ST1|]. exact ST2.
  - rewrite <- EFr. eapply st_eqB_trans; eassumption.
  - rewrite <- Efst, Ef. exact Rr.
  - rewrite <- Efst, Ef. exact Hb.
  - intros r Hr4 Nt Nt2. rewrite Oth; [apply RG1|exact Nt|exact Nt2| | |].
    + change TEMP with 1%N. lia.
    + change HEAP with 2%N. lia.
    + change FREE with 3%N. lia.
  - rewrite <- Efst. exact Ef.
  - destruct BW as [BW1 BW2]. split.
    + intros i b Hi. destruct (BW1 i b Hi) as [A1 A2]. assert (Hil : (i < n - rl)%nat) by (rewrite <- Lnext; apply nth_error_Some; congruence).
      rewrite Lnext in *. rewrite !NB, !W1; [auto| |].
      * rewrite <- !Z.add_assoc. apply not_blk_off; [exact Hb|lia].
      * rewrite <- Z.add_assoc. apply not_blk_off; [exact Hb|lia].
    + intros j Hj. rewrite Lnext in *. rewrite NB, W1; [now apply BW2|]. rewrite <- Z.add_assoc. apply not_blk_off; [exact Hb|lia].
  - intros ->. rewrite NB by (apply not_blk_off; [exact Hb|lia]). rewrite W1. unfold w1, cap. cbn [bp_n]. change (3 - 1)%N with 2%N.
    rewrite sv_spec_frame by (rewrite ?rev_length, ?Lnext; unfold cap in *; cbn [bp_n] in *; lia). rewrite W0, Z.eqb_refl. reflexivity.
  - intros a Ha Hout'. rewrite NB by exact Ha. apply Hout. lia.
Qed.

Lemma star_app_len pos s (a b : list rcode) s1 s2 :
  star im pos s (padd pos (List.length a)) s1 -> star im (padd pos (List.length a)) s1 (padd (padd pos (List.length a)) (List.length b)) s2 ->
  star im pos s (padd pos (List.length (a ++ b))) s2.
Proof. intros A B. rewrite app_length, padd_add. eapply star_trans; eassumption. Qed.

Lemma pos_reg_lt_keep E rl k :
  (2 * N.of_nat E <= k < 2 * N.of_nat (E + rl))%N -> (4 <= rtp k)%N /\ rtp k <> pos_reg Fst (E + rl) /\ rtp k <> pos_reg Snd (E + rl).
Proof. intros H. unfold rtp, pos_reg. cbn [tnum_n]. change RESERVED with 4%N. lia. Qed.

(* the continuation blocks (BlockPosition::Other) *)
(* the last conjunct (chain of the object, words of the variables) is conditional on the acquired blocks being
   pairwise different and different from the blocks already written: the rest holds without *)
Lemma rv_store_fields_other : forall fuel to_store remaining lc cs lc' pos s F val link fa,
  store_fields fuel to_store remaining Other lc = Ok (cs, lc') ->
  (List.length to_store < fuel)%nat -> (List.length to_store <= fa)%nat ->
  placed im pos cs ->
  vals_ok s val (List.length remaining) to_store ->
  rget s (pos_reg Fst (List.length remaining + List.length to_store)) = Some link ->
  chain_pre fa (xfsts val (List.length remaining) to_store) link (abs_heap F s) ->
  let acq := chain_acq fa (xfsts val (List.length remaining) to_store) link (abs_heap F s) in
  let res := Heap.store_other fa (xfsts val (List.length remaining) to_store) link (abs_heap F s) in
  exists s', star im pos s (padd pos (List.length cs)) s' /\
    st_eqB (abs_heap (Heap.frontier (snd res)) s') (snd res) /\
    rget s' (pos_reg Fst (List.length remaining)) = Some (fst res) /\
    (forall r, (4 <= r)%N -> (r < pos_reg Fst (List.length remaining))%N -> rget s' r = rget s r) /\
    (forall a, ~ is_blk a -> (forall b, In b acq -> a < b \/ b + 64 <= a) -> hword s' a = hword s a) /\
    (forall done kk,
       let bl := wblocks kk (hword s) link in
       let K := (kk + nbo (List.length to_store))%nat in
       NoDup acq -> Forall is_blk bl -> (forall b, In b acq -> ~ In b bl) ->
       chain_holds (hword s) val (List.length remaining + List.length to_store) done kk link ->
       (to_store <> [] -> List.length done = (2 * kk + 3)%nat) ->
       wblocks K (hword s') (fst res) = rev acq ++ bl /\
       Forall is_blk (rev acq ++ bl) /\
       chain_holds (hword s') val (List.length remaining) (to_store ++ done) K (fst res)).
Proof.
  induction fuel as [|fuel IH]; intros to_store remaining lc cs lc' pos s F val link fa Hsf Hfuel Hfa PL V Hlink Pre acq res; [lia|].
  set (E := List.length remaining) in *.
  destruct to_store as [|x r].
  - cbn [store_fields] in Hsf. inversion Hsf; subst cs lc'. cbn [List.length] in Hlink |- *. rewrite Nat.add_0_r in Hlink |- *.
    assert (Hres : res = (link, abs_heap F s)) by (unfold res; destruct fa; reflexivity).
    assert (Hacq : acq = []) by (unfold acq; destruct fa; reflexivity).
    rewrite Hres, Hacq. cbn [fst snd abs_heap Heap.frontier List.length padd rev app].
    exists s. split; [apply star_refl|]. split; [apply st_eqB_refl|]. repeat (split; [auto; fail|]).
    intros done kk _ Hbl _ CH _. change (nbo 0) with 0%nat. rewrite Nat.add_0_r. auto.
  - set (to_store := x :: r) in *. set (n := List.length to_store) in *.
    destruct (store_fields_unfold fuel to_store remaining Other lc cs lc' ltac:(discriminate) Hsf) as (c0 & sv & c3 & Hc0 & Hsv & Hk & Hsf3 & ->).
    change (3 - bp_n Other)%N with 2%N in *. fold n in Hk, Hsv, Hsf3, PL |- *.
    set (rl := rest_len n 2) in *.
    assert (Hn1 : (1 <= n)%nat) by (unfold n, to_store; cbn [List.length]; lia).
    assert (Hrl : rl = (n - 2)%nat) by apply X86MemStoreChain.rest_len_val.
    assert (Lfirst : List.length (firstn rl to_store) = rl) by (rewrite firstn_length; fold n; lia).
    assert (Lnext : List.length (skipn rl to_store) = (n - rl)%nat) by (rewrite skipn_length; reflexivity).
    assert (Lrr : List.length (remaining ++ firstn rl to_store) = (E + rl)%nat) by (rewrite app_length, Lfirst; reflexivity).
    rewrite Lrr in *.
    destruct fa as [|fa]; [unfold n, to_store in Hfa; cbn [List.length] in Hfa; lia|].
    set (fields := xfsts val E to_store) in *.
    assert (Hfne : fields <> []) by (unfold fields, to_store; cbn [X86MemStore.fsts]; discriminate).
    assert (Lfields : List.length fields = n) by apply X86MemStore.fsts_length.
    set (P := Heap.pad 2 (Heap.lastn 2 fields) ++ [link]) in *.
    assert (Pre' : acq_ok (abs_heap F s) /\ chain_pre fa (Heap.butlastn 2 fields) (fst (Heap.alloc P (abs_heap F s))) (snd (Heap.alloc P (abs_heap F s)))).
    { cbn [X86MemStoreChain.chain_pre] in Pre. destruct fields; [contradiction|]. exact Pre. }
    destruct Pre' as [AOK Pre'].
    assert (Hres : res = Heap.store_other fa (Heap.butlastn 2 fields) (fst (Heap.alloc P (abs_heap F s))) (snd (Heap.alloc P (abs_heap F s))))
      by (unfold res; now rewrite X86MemStoreChain.store_other_step).
    assert (Hacq : acq = Heap.heap (abs_heap F s) ::
                     chain_acq fa (Heap.butlastn 2 fields) (fst (Heap.alloc P (abs_heap F s))) (snd (Heap.alloc P (abs_heap F s)))).
    { unfold acq. cbn [X86HeapAcq.chain_acq]. destruct fields; [contradiction|]. reflexivity. }
    rewrite Hres. clear Hres res. rewrite Hacq. clear Hacq acq.
    rewrite !app_assoc in PL. apply placed_app in PL as [PL1 PL3].
    rewrite <- !app_assoc in PL1. rewrite <- (app_assoc c0 sv) in PL3.
    destruct (rv_store_block pos Other to_store remaining lc c0 sv s F val link ltac:(discriminate) Hc0 Hsv PL1 V (fun _ => Hlink) AOK)
      as (s2 & ST2 & EQ2 & Rr & Bb & Oth & Erv & BW & LK & Fr2).
    specialize (LK eq_refl).
    change (N.to_nat (3 - bp_n Other)) with 2%nat in *. change (3 - bp_n Other)%N with 2%N in *. fold E n rl fields P in ST2, EQ2, Rr, Bb, Oth, Erv, BW.
    set (b := fst (Heap.alloc P (abs_heap F s))) in *. set (a1 := snd (Heap.alloc P (abs_heap F s))) in *.
    set (rv := Heap.heap (abs_heap F s)) in *. rewrite <- Erv in BW, LK, Fr2 |- *. clear Erv rv.
    assert (Hbut : Heap.butlastn 2 fields = xfsts val E (firstn rl to_store)).
    { unfold Heap.butlastn. rewrite Lfields. unfold fields. rewrite X86MemStoreChain.fsts_firstn, Hrl. reflexivity. }
    rewrite Hbut in *.
    assert (V2 : vals_ok s2 val E (firstn rl to_store)).
    { eapply vals_ok_keep; [|apply (vals_ok_app_l s val E (firstn rl to_store) (skipn rl to_store)); now rewrite firstn_skipn].
      intros k Hk'. rewrite Lfirst in Hk'. destruct (pos_reg_lt_keep E rl k Hk') as (K1 & K2 & K3). apply Oth; assumption. }
    destruct (X86MemStoreChain.store_other_congr fa _ b a1 (abs_heap (Heap.frontier a1) s2) (st_eqB_sym _ _ EQ2) Pre') as (Pre2 & Ef & Es).
    pose proof (X86MemStoreFull.chain_acq_congr fa _ b a1 (abs_heap (Heap.frontier a1) s2) (st_eqB_sym _ _ EQ2) Pre') as Eacq.
    set (acq' := chain_acq fa (xfsts val E (firstn rl to_store)) b a1) in *.
    rewrite (app_assoc sv), (app_assoc c0).
    destruct (IH (firstn rl to_store) remaining _ c3 lc' _ s2 (Heap.frontier a1) val b fa Hsf3
                ltac:(rewrite Lfirst; unfold n, to_store in *; cbn [List.length] in *; lia)
                ltac:(rewrite Lfirst; unfold n, to_store in *; cbn [List.length] in *; lia) PL3 V2)
      as (s3 & ST3 & EQ3 & R3 & Oth3 & Fr3 & Strong3).
    { rewrite Lfirst. exact Rr. }
    { exact Pre2. }
    fold E in EQ3, R3, Oth3, Fr3, Strong3. rewrite <- Eacq in Fr3, Strong3. rewrite Lfirst in Strong3.
    exists s3. split; [|split; [|split; [|split; [|split]]]].
    + eapply star_app_len; eassumption.
    + destruct Es as (X1 & X2 & X3 & X4). rewrite X3.
      eapply st_eqB_trans; [exact EQ3|]. apply st_eqB_sym. split; [exact X1|]. split; [exact X2|]. split; [exact X3|exact X4].
    + rewrite Ef. exact R3.
    + intros r0 Hr4 Hr0. rewrite Oth3 by assumption. apply Oth; [exact Hr4| |]; unfold pos_reg in *; cbn [tnum_n] in *; lia.
    + intros a Ha Hout. rewrite Fr3; [apply Fr2; [exact Ha|apply Hout; left; reflexivity]|exact Ha|].
      intros y Hy. apply Hout. right. exact Hy.
    + (* the chain after this round *)
      intros done kk. cbv zeta. set (bl := wblocks kk (hword s) link). intros ND Hbl Hdisj CH Hfull.
      assert (Hnin : ~ In b bl) by (apply Hdisj; left; reflexivity).
      assert (Hsame : forall x, In x bl -> forall i, 0 < i < 64 -> hword s2 (x + i) = hword s (x + i))
        by (apply (X86MemStoreFull.frame_blocks (hword s) (hword s2) b bl Fr2 Bb Hbl Hnin)).
      destruct (X86MemStoreFull.wchain_congr (hword s) (hword s2) kk link) as [EB2 _]; [intros y Hy; apply Hsame; [exact Hy|lia]|].
      assert (Hbl2 : wblocks (S kk) (hword s2) b = b :: bl) by (cbn [X86HeapDefs.wblocks]; rewrite LK, EB2; reflexivity).
      assert (Ldone : List.length done = (2 * kk + 3)%nat) by (apply Hfull; discriminate).
      assert (CH2 : chain_holds (hword s2) val (E + rl) (skipn rl to_store ++ done) (S kk) b).
      { apply (X86MemStoreFull.chain_holds_ext _ _ _ _ _ _ link); [|exact Ldone|exact LK|exact BW|rewrite Lnext; lia].
        rewrite Lnext. replace (E + rl + (n - rl))%nat with (E + n)%nat by lia.
        eapply X86MemStoreFull.chain_holds_congr; [exact CH|exact Hsame]. }
      destruct (Strong3 (skipn rl to_store ++ done) (S kk)) as (WB3 & FB3 & CH3).
      { inversion ND; assumption. }
      { rewrite Hbl2. apply Forall_cons; [exact Bb|exact Hbl]. }
      { rewrite Hbl2. intros y Hy [<-|Hin].
        - inversion ND; contradiction.
        - apply (Hdisj y); [right; exact Hy|exact Hin]. }
      { exact CH2. }
      { intros Hne'. rewrite app_length, Lnext, Ldone.
        assert (rl <> 0)%nat by (intros H0; rewrite H0 in Hne'; apply Hne'; reflexivity). lia. }
      rewrite Hbl2 in WB3, FB3.
      assert (HK : (kk + nbo n = S kk + nbo rl)%nat) by (rewrite (X86MemLoadChain.nbo_step n Hn1), Hrl; lia).
      assert (Hrev : rev (b :: acq') ++ bl = rev acq' ++ b :: bl) by (cbn [rev]; now rewrite <- app_assoc).
      fold n. split; [|split].
      * rewrite HK, Ef, Hrev. exact WB3.
      * rewrite Hrev. exact FB3.
      * rewrite HK, Ef. rewrite app_assoc, firstn_skipn in CH3. exact CH3.
Qed.

(* the first round (BlockPosition::Last) followed by the continuation blocks *)
Lemma rv_store_rounds pos to_store remaining lc cs lc' s F val :
  r_store to_store remaining lc = Ok (cs, lc') -> to_store <> [] ->
  placed im pos cs ->
  vals_ok s val (List.length remaining) to_store ->
  let E := List.length remaining in let n := List.length to_store in let k := Heap.nlinks n in
  let fields := xfsts val E to_store in
  alloc_object_pre fields (abs_heap F s) ->
  let res := Heap.alloc_object fields (abs_heap F s) in
  exists s', star im pos s (padd pos (List.length cs)) s' /\
    st_eqB (abs_heap (Heap.frontier (snd res)) s') (snd res) /\
    rget s' (pos_reg Fst E) = Some (fst res) /\
    (forall r, (4 <= r)%N -> (r < pos_reg Fst E)%N -> rget s' r = rget s r) /\
    (forall a, ~ is_blk a -> (forall b, In b (alloc_object_acq fields (abs_heap F s)) -> a < b \/ b + 64 <= a) -> hword s' a = hword s a) /\
    (NoDup (alloc_object_acq fields (abs_heap F s)) ->
     wblocks k (hword s') (fst res) = rev (alloc_object_acq fields (abs_heap F s)) /\
     Forall is_blk (wblocks k (hword s') (fst res)) /\
     (let A := waddrs k (hword s') (fst res) in
      (forall i b, nth_error to_store i = Some b ->
         let a := nth (List.length A - n + i) A 0 in
         hword s' a = xfst_slot val (E + i) b /\ hword s' (a + 8) = xsnd_slot val (E + i)) /\
      (forall j, (j < List.length A - n)%nat -> hword s' (nth j A 0) = 0))).
Proof.
  intros Hx Hne PL V E n k fields Pre res. unfold r_store in Hx. fold n in Hx.
  destruct (store_fields_unfold n to_store remaining Last lc cs lc' Hne Hx) as (c0 & sv & c3 & Hc0 & Hsv & Hk & Hsf3 & ->).
  change (3 - bp_n Last)%N with 3%N in *. fold n in Hk, Hsv, Hsf3, PL |- *.
  set (rl := rest_len n 3) in *.
  assert (Hrl : rl = (n - 3)%nat) by apply X86MemStoreChain.rest_len_val.
  assert (Lfirst : List.length (firstn rl to_store) = rl) by (rewrite firstn_length; fold n; lia).
  assert (Lnext : List.length (skipn rl to_store) = (n - rl)%nat) by (rewrite skipn_length; reflexivity).
  assert (Hn : (1 <= n)%nat) by (unfold n; destruct to_store; [contradiction|cbn; lia]).
  assert (Lrr : List.length (remaining ++ firstn rl to_store) = (E + rl)%nat) by (rewrite app_length, Lfirst; reflexivity).
  rewrite Lrr in *.
  assert (Lfields : List.length fields = n) by apply X86MemStore.fsts_length.
  assert (Hfne : fields <> []) by (intros Hf; rewrite Hf in Lfields; cbn in Lfields; lia).
  set (P := Heap.pad 3 (Heap.lastn 3 fields)) in *.
  assert (Pre' : acq_ok (abs_heap F s) /\ chain_pre n (Heap.butlastn 3 fields) (fst (Heap.alloc P (abs_heap F s))) (snd (Heap.alloc P (abs_heap F s)))).
  { unfold X86MemStoreChain.alloc_object_pre in Pre. rewrite Lfields in Pre. destruct fields; [contradiction|]. exact Pre. }
  destruct Pre' as [AOK Pre'].
  assert (Hres : res = Heap.store_other n (Heap.butlastn 3 fields) (fst (Heap.alloc P (abs_heap F s))) (snd (Heap.alloc P (abs_heap F s)))).
  { unfold res, Heap.alloc_object. rewrite Lfields. fold P. destruct fields; [contradiction|]. destruct (Heap.alloc P (abs_heap F s)). reflexivity. }
  assert (Hacq : alloc_object_acq fields (abs_heap F s) = Heap.heap (abs_heap F s) ::
                   chain_acq n (Heap.butlastn 3 fields) (fst (Heap.alloc P (abs_heap F s))) (snd (Heap.alloc P (abs_heap F s)))).
  { unfold X86HeapAcq.alloc_object_acq. rewrite Lfields. fold P. destruct fields; [contradiction|]. reflexivity. }
  rewrite Hres. clear Hres res. rewrite Hacq. clear Hacq.
  rewrite !app_assoc in PL. apply placed_app in PL as [PL1 PL3].
  rewrite <- !app_assoc in PL1. rewrite <- (app_assoc c0 sv) in PL3.
  destruct (rv_store_block pos Last to_store remaining lc c0 sv s F val 0 Hne Hc0 Hsv PL1 V ltac:(discriminate) AOK)
    as (s2 & ST2 & EQ2 & Rr & Bb & Oth & Erv & BW & _ & Fr2).
  change (N.to_nat (3 - bp_n Last)) with 3%nat in *. change (3 - bp_n Last)%N with 3%N in *. rewrite app_nil_r in *.
  fold E n rl fields P in ST2, EQ2, Rr, Bb, Oth, Erv, BW.
  set (b := fst (Heap.alloc P (abs_heap F s))) in *. set (a1 := snd (Heap.alloc P (abs_heap F s))) in *.
  set (rv := Heap.heap (abs_heap F s)) in *. rewrite <- Erv in BW, Fr2 |- *. clear Erv rv.
  assert (Hbut : Heap.butlastn 3 fields = xfsts val E (firstn rl to_store)).
  { unfold Heap.butlastn. rewrite Lfields. unfold fields. rewrite X86MemStoreChain.fsts_firstn, Hrl. reflexivity. }
  rewrite Hbut in *.
  assert (V2 : vals_ok s2 val E (firstn rl to_store)).
  { eapply vals_ok_keep; [|apply (vals_ok_app_l s val E (firstn rl to_store) (skipn rl to_store)); now rewrite firstn_skipn].
    intros k0 Hk'. rewrite Lfirst in Hk'. destruct (pos_reg_lt_keep E rl k0 Hk') as (K1 & K2 & K3). apply Oth; assumption. }
  destruct (X86MemStoreChain.store_other_congr n _ b a1 (abs_heap (Heap.frontier a1) s2) (st_eqB_sym _ _ EQ2) Pre') as (Pre2 & Ef & Es).
  pose proof (X86MemStoreFull.chain_acq_congr n _ b a1 (abs_heap (Heap.frontier a1) s2) (st_eqB_sym _ _ EQ2) Pre') as Eacq.
  set (acq' := chain_acq n (xfsts val E (firstn rl to_store)) b a1) in *.
  rewrite (app_assoc sv), (app_assoc c0).
  destruct (rv_store_fields_other n (firstn rl to_store) remaining _ c3 lc' _ s2 (Heap.frontier a1) val b n Hsf3
              ltac:(rewrite Lfirst; lia) ltac:(rewrite Lfirst; lia) PL3 V2)
    as (s3 & ST3 & EQ3 & R3 & Oth3 & Fr3 & Strong3).
  { rewrite Lfirst. exact Rr. }
  { exact Pre2. }
  fold E in EQ3, R3, Oth3, Fr3, Strong3. rewrite <- Eacq in Fr3, Strong3. rewrite Lfirst in Strong3.
  exists s3. split; [|split; [|split; [|split; [|split]]]].
  + eapply star_app_len; eassumption.
  + destruct Es as (X1 & X2 & X3 & X4). rewrite X3.
    eapply st_eqB_trans; [exact EQ3|]. apply st_eqB_sym. split; [exact X1|]. split; [exact X2|]. split; [exact X3|exact X4].
  + rewrite Ef. exact R3.
  + intros r0 Hr4 Hr0. rewrite Oth3 by assumption. apply Oth; [exact Hr4| |]; unfold pos_reg in *; cbn [tnum_n] in *; lia.
  + intros a Ha Hout. rewrite Fr3; [apply Fr2; [exact Ha|apply Hout; left; reflexivity]|exact Ha|].
    intros y Hy. apply Hout. right. exact Hy.
  + intros ND.
    assert (CH2 : chain_holds (hword s2) val (E + rl) (skipn rl to_store) 0 b)
      by (apply X86MemStoreFull.chain_holds_last; [exact BW|rewrite Lnext; lia]).
    destruct (Strong3 (skipn rl to_store) 0%nat) as (WB3 & FB3 & CH3).
    { inversion ND; assumption. }
    { cbn [X86HeapDefs.wblocks]. apply Forall_cons; [exact Bb|apply Forall_nil]. }
    { cbn [X86HeapDefs.wblocks]. intros y Hy [<-|[]]. inversion ND; contradiction. }
    { exact CH2. }
    { intros Hne'. rewrite Lnext.
      assert (rl <> 0)%nat by (intros H0; rewrite H0 in Hne'; apply Hne'; reflexivity). lia. }
    cbn [X86HeapDefs.wblocks] in WB3, FB3. rewrite firstn_skipn in CH3. cbn [Nat.add] in WB3, CH3.
    assert (HK : k = nbo rl) by (unfold k; rewrite X86MemLoadChain.nlinks_nbo, Hrl; reflexivity).
    rewrite <- HK, <- Ef in WB3, CH3.
    assert (Hrev : rev (b :: acq') = rev acq' ++ [b]) by reflexivity.
    split; [rewrite Hrev; exact WB3|]. split; [rewrite WB3; exact FB3|].
    destruct CH3 as (C1 & C2 & _). cbv zeta. fold n in C1, C2. split; [exact C1|exact C2].
Qed.

(* r_store of any number of variables = Heap.alloc_object, with words, chain and frames *)
Theorem rv_store_chain pos to_store remaining lc cs lc' s F val :
  r_store to_store remaining lc = Ok (cs, lc') -> to_store <> [] ->
  placed im pos cs ->
  vals_ok s val (List.length remaining) to_store ->
  let E := List.length remaining in let n := List.length to_store in let k := Heap.nlinks n in
  let fields := xfsts val E to_store in
  alloc_object_pre fields (abs_heap F s) ->
  NoDup (alloc_object_acq fields (abs_heap F s)) ->
  let res := Heap.alloc_object fields (abs_heap F s) in
  exists s', star im pos s (padd pos (List.length cs)) s' /\
    st_eqB (abs_heap (Heap.frontier (snd res)) s') (snd res) /\
    rget s' (rtp (2 * N.of_nat E)) = Some (fst res) /\
    (forall q, (q < 2 * N.of_nat E)%N -> rget s' (rtp q) = rget s (rtp q)) /\
    wblocks k (hword s') (fst res) = rev (alloc_object_acq fields (abs_heap F s)) /\
    Forall is_blk (wblocks k (hword s') (fst res)) /\
    (let A := waddrs k (hword s') (fst res) in
     (forall i b, nth_error to_store i = Some b ->
        let a := nth (List.length A - n + i) A 0 in
        hword s' a = xfst_slot val (E + i) b /\ hword s' (a + 8) = xsnd_slot val (E + i)) /\
     (forall j, (j < List.length A - n)%nat -> hword s' (nth j A 0) = 0)) /\
    (forall a, ~ is_blk a -> (forall b, In b (alloc_object_acq fields (abs_heap F s)) -> a < b \/ b + 64 <= a) -> hword s' a = hword s a).
Proof.
  intros Hx Hne PL V E n k fields Pre ND res.
  destruct (rv_store_rounds pos to_store remaining lc cs lc' s F val Hx Hne PL V Pre)
    as (s' & X1 & X2 & X3 & X4 & X7 & X9).
  destruct (X9 ND) as (Y1 & Y2 & Y3).
  exists s'. split; [exact X1|]. split; [exact X2|]. split.
  { rewrite pos_reg_rtp in X3. cbn [tnum_n] in X3. rewrite N.add_0_r in X3. exact X3. }
  split.
  { intros q Hq. apply X4; unfold rtp, pos_reg; cbn [tnum_n]; change RESERVED with 4%N; fold E; lia. }
  split; [exact Y1|]. split; [exact Y2|]. split; [exact Y3|exact X7].
Qed.

(* nothing to store: the null pointer *)
(* at most three fields: one block, `alloc_object` is one `alloc` of the padded fields *)
Theorem rv_store_full pos to_store remaining lc cs lc' s F val :
  r_store to_store remaining lc = Ok (cs, lc') -> to_store <> [] -> (List.length to_store <= 3)%nat ->
  placed im pos cs ->
  vals_ok s val (List.length remaining) to_store ->
  let E := List.length remaining in let n := List.length to_store in
  let fields := fsts val E to_store in
  acq_ok (abs_heap F s) ->
  let res := Heap.alloc (Heap.pad 3 fields) (abs_heap F s) in
  exists s', star im pos s (padd pos (List.length cs)) s' /\
    st_eqB (abs_heap (Heap.frontier (snd res)) s') (snd res) /\
    fst res = Heap.heap (abs_heap F s) /\
    rget s' (rtp (2 * N.of_nat E)) = Some (fst res) /\
    (forall q, (q < 2 * N.of_nat E)%N -> rget s' (rtp q) = rget s (rtp q)) /\
    (forall i b, nth_error to_store i = Some b ->
        hword s' (slot_addr (fst res) n i) = fst_slot val (E + i) b /\
        hword s' (slot_addr (fst res) n i + 8) = snd_slot val (E + i)) /\
    (forall j, (j < 3 - n)%nat -> hword s' (fst res + 16 * Z.of_nat (j + 1)) = 0) /\
    (forall a, ~ is_blk a -> (a < fst res \/ fst res + 64 <= a) -> hword s' a = hword s a).
Proof.
  intros Hx Hne LE PL V E n fields AOK res.
  change (fsts val E to_store) with (xfsts val E to_store) in (value of fields).
  assert (Lf : List.length fields = n) by apply fsts_length.
  assert (Hn : (0 < n)%nat) by (unfold n; destruct to_store; [congruence|cbn; lia]).
  assert (E3 : Heap.lastn 3 fields = fields) by (unfold Heap.lastn; replace (List.length fields - 3)%nat with O by lia; reflexivity).
  assert (B3 : Heap.butlastn 3 fields = []) by (unfold Heap.butlastn; replace (List.length fields - 3)%nat with O by lia; reflexivity).
  assert (AO : Heap.alloc_object fields (abs_heap F s) = res).
  { unfold Heap.alloc_object, res. rewrite E3, B3. destruct fields; [cbn in Lf; lia|]. now destruct (Heap.alloc _ _). }
  assert (ACQ : alloc_object_acq fields (abs_heap F s) = [Heap.heap (abs_heap F s)]).
  { unfold alloc_object_acq. rewrite B3. destruct fields; [cbn in Lf; lia|]. reflexivity. }
  assert (NL : Heap.nlinks n = O) by (unfold Heap.nlinks; destruct (Nat.leb_spec n 3); [reflexivity|lia]).
  destruct (rv_store_chain pos to_store remaining lc cs lc' s F val Hx Hne PL V) as (s' & X1 & X2 & X3 & X4 & _ & _ & (X7 & X8) & X9).
  { unfold alloc_object_pre. fold E. fold fields. rewrite B3. destruct fields; [exact I|]. split; [exact AOK|exact I]. }
  { fold E. fold fields. rewrite ACQ. repeat constructor. intros []. }
  fold E fields n in X2, X3, X7, X8, X9. rewrite AO in X2, X3, X7, X8. rewrite NL in X7, X8. rewrite ACQ in X9.
  cbn [waddrs List.length] in X7, X8.
  exists s'. split; [exact X1|]. split; [exact X2|]. split; [apply alloc_fst|]. split; [exact X3|]. split; [exact X4|].
  split; [|split].
  - intros i b Hi. assert (Li : (i < n)%nat) by (apply nth_error_Some; congruence).
    specialize (X7 i b Hi). unfold slot_addr. replace (3 - n + i + 1)%nat with (S (3 - n + i)) by lia.
    destruct (3 - n + i)%nat as [|[|[|m]]] eqn:Em; [exact X7..|lia].
  - intros j Hj. specialize (X8 j Hj). replace (j + 1)%nat with (S j) by lia. destruct j as [|[|[|j]]]; [exact X8..|lia].
  - intros a NB OUT. apply X9; [exact NB|]. intros b [<-|[]]. rewrite <- (alloc_fst (Heap.pad 3 fields)). exact OUT.
Qed.

Theorem rv_store_empty pos remaining lc cs lc' s :
  r_store [] remaining lc = Ok (cs, lc') -> placed im pos cs ->
  lc' = lc /\
  exists s', star im pos s (padd pos (List.length cs)) s' /\
    rget s' (rtp (2 * N.of_nat (List.length remaining))) = Some 0 /\
    (forall r, r <> rtp (2 * N.of_nat (List.length remaining)) -> rget s' r = rget s r) /\
    (forall a, hword s' a = hword s a).
Proof.
  intros XS PL. unfold r_store in XS. cbn [List.length store_fields] in XS.
  destruct (r_fresh Fst remaining) as [t1|] eqn:T1; cbn [rbind] in XS; [|discriminate].
  inversion XS; subst cs lc'. split; [reflexivity|].
  apply r_fresh_ok in T1. subst t1. rewrite pos_reg_rtp in *. cbn [tnum_n] in *. rewrite N.add_0_r in *.
  set (t1 := rtp (2 * N.of_nat (List.length remaining))) in *.
  assert (NZ : t1 <> 0%N) by (unfold t1, rtp; lia).
  exists (rset s t1 (rget s ZERO)). split; [|split; [|split]].
  - destruct PL as [AC _]. exec_next AC 0%nat step_MV. apply star_refl.
  - rewrite rget_rset_same by exact NZ. reflexivity.
  - intros r Hr. apply rget_rset_other. congruence.
  - intros a. apply hword_rset.
Qed.
End Chain.

Print Assumptions rv_store_chain.
