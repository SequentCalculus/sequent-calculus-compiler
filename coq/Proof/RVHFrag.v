(* C08, heap statements: the fragment `stmt_h` of the RISC-V heap simulation (objects and closure
   environments of at most three fields: ONE block; every Switch has a clause; no print statement), and
   the fact that the code of every statement of the fragment contains an instruction of non-zero size
   (so an indirect jump to the address of its first instruction lands inside it, `RVHLayout.fwd_ok`). *)
From Coq Require Import List ZArith NArith String Bool Lia FMapPositive.
From SCC Require Import Base.Sexp Lang.AxSyn Sem.AxSem Model.ParMoves Model.Backend Model.RV Sem.RVSem Sem.RVWf
     Model.Linearize Model.LinCheck Generated.Constants Proof.LinBasics
     Proof.RVSel Proof.RVSimAddr Proof.BackendInv Proof.RVSimRel Proof.RVSimStmt Proof.RVSimClo Proof.RVHLayout.
From SCC Require Proof.RVKFrag.
Import ListNotations.
Open Scope Z_scope.
Open Scope list_scope.

Fixpoint stmt_h (s : stmt) : bool :=
  let clauses := fix go (cls : list (ident * ctx * stmt)) : bool :=
    match cls with
    | [] => true
    | (_, cc, b) :: r => Nat.leb (List.length cc) 3 && stmt_h b && go r
    end in
  match s with
  | Substitute _ next => stmt_h next
  | Call _ _ | Exit _ | Invoke _ _ _ _ => true
  | Let _ _ _ args next => Nat.leb (List.length args) 3 && stmt_h next
  | Switch _ _ cls => negb (XC.is_nil cls) && clauses cls
  | Create _ _ (Some env) cls next => Nat.leb (List.length env) 3 && clauses cls && stmt_h next
  | Create _ _ None _ _ => false
  | Literal _ _ next | Op _ _ _ _ next => stmt_h next
  | PrintI64 _ _ _ => false
  | IfC _ _ _ t e => stmt_h t && stmt_h e
  end.
Definition clauses_h (cls : list clause) : bool :=
  forallb (fun c => Nat.leb (List.length (cl_ctx c)) 3 && stmt_h (cl_body c)) cls.
Definition h_frag (p : prog) : bool := forallb (fun d => stmt_h (dbody d)) (pdefs p).

Lemma stmt_h_switch v t cls : stmt_h (Switch v t cls) = negb (XC.is_nil cls) && clauses_h cls.
Proof.
  cbn [stmt_h]. f_equal. unfold clauses_h. induction cls as [|[[x cc] b] r IH]; [reflexivity|].
  cbn [forallb cl_ctx cl_body fst snd]. now rewrite IH.
Qed.
Lemma stmt_h_create v t env cls next :
  stmt_h (Create v t (Some env) cls next) = Nat.leb (List.length env) 3 && clauses_h cls && stmt_h next.
Proof.
  cbn [stmt_h]. f_equal. f_equal. unfold clauses_h. induction cls as [|[[x cc] b] r IH]; [reflexivity|].
  cbn [forallb cl_ctx cl_body fst snd]. now rewrite IH.
Qed.
(* the fragment lies within that of the chain development (Proof/RVKFrag.v) *)
Lemma clauses_h_k_if cls :
  Forall (fun c => stmt_h (cl_body c) = true -> RVKFrag.stmt_k (cl_body c) = true) cls ->
  clauses_h cls = true -> RVKFrag.clauses_k cls = true.
Proof.
  unfold clauses_h, RVKFrag.clauses_k. rewrite !forallb_forall, Forall_forall. intros IH H c Hc.
  specialize (H c Hc). apply andb_true_iff in H as [_ H]. exact (IH c Hc H).
Qed.
Lemma stmt_h_k : forall s, stmt_h s = true -> RVKFrag.stmt_k s = true.
Proof.
  intros s. induction s using stmt_ind2; intros FR.
  - exact (IHs FR).
  - reflexivity.
  - cbn [stmt_h] in FR. apply andb_true_iff in FR as [_ FR]. exact (IHs FR).
  - rewrite stmt_h_switch in FR. rewrite RVKFrag.stmt_k_switch. apply andb_true_iff in FR as [_ FR]. exact (clauses_h_k_if cls H FR).
  - destruct env as [env|]; [|discriminate]. rewrite stmt_h_create in FR. rewrite RVKFrag.stmt_k_create.
    apply andb_true_iff in FR as [FR FRn]. apply andb_true_iff in FR as [_ FRc].
    rewrite (clauses_h_k_if cls H FRc), (IHs FRn). reflexivity.
  - reflexivity.
  - exact (IHs FR).
  - exact (IHs FR).
  - discriminate.
  - cbn [stmt_h] in FR. apply andb_true_iff in FR as [F1 F2]. cbn [RVKFrag.stmt_k]. rewrite (IHs1 F1), (IHs2 F2). reflexivity.
  - reflexivity.
Qed.
Lemma clauses_h_k cls : clauses_h cls = true -> RVKFrag.clauses_k cls = true.
Proof. apply clauses_h_k_if. apply Forall_forall. intros c _. apply stmt_h_k. Qed.

Lemma stmt_h_no_print : forall s, stmt_h s = true -> stmt_has_print s = false.
Proof. intros s FR. exact (RVKFrag.stmt_k_no_print s (stmt_h_k s FR)). Qed.

Lemma has_nz_cons c r : isize c <> 0 -> has_nz (c :: r).
Proof. intros H. exists O, c. auto. Qed.

(* every statement of the fragment emits an instruction of non-zero size *)
Lemma cs_has_nz types : forall s c lc code lc',
  stmt_h s = true -> rcs types s c lc = Ok (code, lc') -> has_nz code.
Proof.
  intros s. induction s using stmt_ind2; intros c lc code lc' FR CS.
  - cbn [stmt_h] in FR. destruct (cs_substitute _ _ _ _ _ _ _ _ CS) as (c1 & lc1 & c2 & c3 & _ & _ & NX & ->).
    cbn [b_mark rv_backend app]. apply has_nz_app_r, has_nz_app_r. eauto.
  - destruct (cs_call _ _ _ _ _ _ _ _ CS) as (-> & _). apply has_nz_cons. cbn; lia.
  - destruct (cs_let _ _ _ _ _ _ _ _ _ _ CS) as (d & k & rest & arguments & c1 & lc1 & tmpv & c3 & _ & _ & _ & _ & _ & _ & ->).
    apply has_nz_app_r. apply has_nz_cons. apply isize_LI.
  - rewrite stmt_h_switch in FR. apply andb_true_iff in FR as [NE CH].
    destruct (cs_switch _ _ _ _ _ _ _ _ CS) as (c1 & c3 & _ & GC & ->).
    apply has_nz_app_r, has_nz_app_r.
    destruct cls as [|[[x cx] body] r]; [discriminate|]. cbn [cl_loop] in GC.
    destruct (r_load cx (removelast c) (lc + 1)%N) as [[cl lc1]|]; cbn [rbind] in GC; [|discriminate].
    destruct (rcs types body (removelast c ++ cx) lc1) as [[cb lc2]|] eqn:BD; cbn [rbind] in GC; [|discriminate].
    destruct (gclauses _ _ _ _ r lc2) as [[cr lc3]|]; cbn [rbind] in GC; [|discriminate]. inversion GC; subst.
    inversion H as [|? ? P0 _]; subst. cbn [cl_body snd] in P0.
    unfold clauses_h in CH. cbn [forallb cl_ctx cl_body fst snd] in CH. apply andb_true_iff in CH as [CH _]. apply andb_true_iff in CH as [_ CH].
    apply (has_nz_app_r [_]), has_nz_app_r, has_nz_app_l. eapply P0; eauto.
  - destruct env as [env|]; [|discriminate].
    destruct (cs_create _ _ _ _ _ _ _ _ _ _ _ CS) as (rest & cenv & c1 & lc1 & tmpv & c3 & lc3 & c5 & _ & _ & _ & _ & _ & ->).
    cbn [b_mark b_load_label rv_backend app r_load_label]. apply has_nz_app_r. apply has_nz_cons. cbn; lia.
  - destruct (cs_invoke _ _ _ _ _ _ _ _ _ _ CS) as (tmpv & d & _ & _ & _ & CD).
    destruct (Nat.leb (List.length (txtors d)) 1); [subst code; apply has_nz_cons; cbn; lia|].
    destruct CD as (k & _ & ->). cbn [b_mark b_add_and_jump rv_backend app]. unfold r_add_and_jump.
    destruct (addi_fits _); apply has_nz_cons; [cbn; lia|apply isize_LI].
  - destruct (cs_literal _ _ _ _ _ _ _ _ _ CS) as (tv & c2 & _ & _ & ->). apply has_nz_cons. apply isize_LI.
  - destruct (cs_op _ _ _ _ _ _ _ _ _ _ _ CS) as (tv & ta & tb & c2 & _ & _ & _ & _ & ->). destruct o; apply has_nz_cons; cbn; lia.
  - cbn [stmt_h] in FR. discriminate.
  - destruct (cs_ifc _ _ _ _ _ _ _ _ _ _ _ CS) as (ta & c1 & c2 & lc2 & c3 & _ & C1 & _ & _ & ->).
    destruct b as [b|]; [destruct C1 as (tb & _ & ->)|subst c1]; destruct so; apply has_nz_cons; cbn; lia.
  - destruct (cs_exit _ _ _ _ _ _ _ CS) as (tv & _ & -> & _). apply has_nz_cons. cbn; lia.
Qed.
