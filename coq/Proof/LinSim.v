(* C05, semantic half: forward simulation from the named machine on a program to the linear
   machine on its linearization.

   Relation between the two machine states (named: env ne, statement s; linear: env le parallel to
   a context c, statement s'):
     srel rho c s s'   s' is what `lin` returns for the statement `sub_s rho s` in context c, and the
                       hypotheses of the syntactic theorem hold there.  rho is the accumulated
                       renaming (Create renames `next`); it never touches binders.
     erel rho F ne le  every variable x in F (the free variables of s) has a value in ne, the
                       variable `rho x` has a value in le, and the two values are related.
     vrel              integers equal; objects field-wise; closures: same clauses up to
                       linearization, captured environments related on the free variables. *)
From Coq Require Import String List ZArith NArith Bool Lia Permutation.
From SCC Require Import Base.Sexp Lang.AxSyn Sem.AxSem Model.Linearize Model.LinCheck.
From SCC Require Import Proof.LinBasics Proof.LinFbs Proof.LinFreshen Proof.LinTyping Proof.LinSubst.
From SCC Require Import Proof.LinearizeProof Proof.LinMachine.
Import ListNotations.
Open Scope list_scope.
Open Scope N_scope.

Definition srel (Sg : sigs) (rho : list (N * ident)) (c : ctx) (s s' : stmt) : Prop :=
  exists f m, (stmt_size s <= f)%nat /\ has_subst s = false /\ untouched rho (binders s) /\
              ax_check Sg c (sub_s rho s) = true /\ inv c (sub_s rho s) m /\
              s' = fst (lin f (sub_s rho s) c m).

Inductive vrel (Sg : sigs) : value -> value -> Prop :=
| VR_int : forall z, vrel Sg (VInt z) (VInt z)
| VR_obj : forall ty tag fs fs', Forall2 (vrel Sg) fs fs' -> vrel Sg (VObj ty tag fs) (VObj ty tag fs')
| VR_clo : forall ty cls cls' ne le rho cc,
    map fst le = vars cc ->
    Forall2 (fun cl cl' => cl_xtor cl' = cl_xtor cl /\ (cl_ctx cl' = cl_ctx cl /\
                           untouched rho (ids (cl_ctx cl)) /\
                           srel Sg rho (cl_ctx cl ++ cc) (cl_body cl) (cl_body cl'))) cls cls' ->
    (forall x, In x (fv_clauses cls) ->
       exists v v', lookup ne x = Some v /\ lookup le (sub_n rho x) = Some v' /\ vrel Sg v v') ->
    vrel Sg (VClo ty cls ne) (VClo ty cls' le).

Definition erel (Sg : sigs) (rho : list (N * ident)) (F : list N) (ne le : env) : Prop :=
  forall x, In x F -> exists v v', lookup ne x = Some v /\ lookup le (sub_n rho x) = Some v' /\ vrel Sg v v'.

Lemma erel_sub : forall Sg rho F F' ne le, erel Sg rho F ne le -> (forall x, In x F' -> In x F) -> erel Sg rho F' ne le.
Proof. intros Sg rho F F' ne le H Hs x Hx. apply H; auto. Qed.

Lemma vrel_int_inv : forall Sg z v', vrel Sg (VInt z) v' -> v' = VInt z.
Proof. intros Sg z v' H; inversion H; auto. Qed.

Lemma erel_int : forall Sg rho F ne le x z,
  erel Sg rho F ne le -> In (idn x) F -> lookup_int ne x = Some z -> lookup_int le (sub_id rho x) = Some z.
Proof.
  intros Sg rho F ne le x z H Hx Hl. destruct (H _ Hx) as [v [v' [L1 [L2 V]]]].
  unfold lookup_int, lookup_id in *. rewrite L1 in Hl. destruct v; try discriminate. inversion Hl; subst.
  apply vrel_int_inv in V. subst. rewrite sub_id_n, L2. auto.
Qed.

Lemma untouched_sub_n : forall rho xs x, untouched rho xs -> In x xs -> sub_n rho x = x.
Proof. intros rho xs x H Hx. apply sub_n_notin. apply H; auto. Qed.

Lemma lookup_combine_notin : forall (c : ctx) (ws : list value) x,
  length (vars c) = length ws -> ~ In x (ids c) -> lookup (combine (vars c) ws) x = None.
Proof.
  intros c ws x Hlen Hn. apply lookup_None. unfold env_ids.
  rewrite <- (map_map fst idn), combine_map_fst by auto. now rewrite ids_vars.
Qed.

Lemma rebind_self_lookup0 : forall le nc x,
  NoDup (ids nc) -> In x (ids nc) -> lookup (rebind le nc nc) x = Some (getv le x).
Proof. intros. rewrite <- (app_nil_r (rebind le nc nc)). apply rebind_self_lookup; auto. Qed.

Lemma lookup_in_ctx : forall le c x v, map fst le = vars c -> lookup le x = Some v -> In x (ids c).
Proof.
  intros le c x v Hsh L. destruct (in_dec N.eq_dec x (ids c)) as [|Hn]; auto.
  rewrite <- (env_ids_shape le c Hsh) in Hn. apply lookup_None in Hn. congruence.
Qed.

(* restricting the linear environment to the variables in F keeps their values *)
Lemma rebind_fbs_lookup : forall le c F rest x v,
  map fst le = vars c -> NoDup (ids c) -> lookup le x = Some v -> In x F ->
  lookup (rebind le (filter_by_set c F) (filter_by_set c F) ++ rest) x = Some v.
Proof.
  intros le c F rest x v Hsh Hnd L HF. rewrite rebind_self_lookup.
  - f_equal. now apply getv_Some.
  - apply fbs_NoDup; auto.
  - apply fbs_ids_In. split; [eapply lookup_in_ctx; eauto|auto].
Qed.
Lemma rebind_fbs_lookup0 : forall le c F x v,
  map fst le = vars c -> NoDup (ids c) -> lookup le x = Some v -> In x F ->
  lookup (rebind le (filter_by_set c F) (filter_by_set c F)) x = Some v.
Proof. intros. rewrite <- (app_nil_r (rebind _ _ _)). apply rebind_fbs_lookup; auto. Qed.
Lemma lookup_int_fbs : forall le c F w z,
  map fst le = vars c -> NoDup (ids c) -> lookup_int le w = Some z -> In (idn w) F ->
  lookup_int (rebind le (filter_by_set c F) (filter_by_set c F)) w = Some z.
Proof.
  unfold lookup_int, lookup_id. intros le c F w z Hsh Hnd L HF.
  destruct (lookup le (idn w)) as [v|] eqn:E; [|discriminate]. now rewrite (rebind_fbs_lookup0 le c F _ v).
Qed.

Ltac cl_simpl := repeat match goal with
  | |- context [cl_body (?x, ?c, ?b)] => change (cl_body (x, c, b)) with b
  | |- context [cl_ctx (?x, ?c, ?b)] => change (cl_ctx (x, c, b)) with c
  | |- context [cl_xtor (?x, ?c, ?b)] => change (cl_xtor (x, c, b)) with x
  | H : context [cl_body (?x, ?c, ?b)] |- _ => change (cl_body (x, c, b)) with b in H
  | H : context [cl_ctx (?x, ?c, ?b)] |- _ => change (cl_ctx (x, c, b)) with c in H
  | H : context [cl_xtor (?x, ?c, ?b)] |- _ => change (cl_xtor (x, c, b)) with x in H
  end.

Section Sim.
  Variable P : prog.
  Hypothesis HP : prog_ok P = true.
  Notation Sg := (sigs_of P).
  Notation P' := (linearize P).
  Notation srel := (srel Sg).
  Notation vrel := (vrel Sg).
  Notation erel := (erel Sg).

  Definition sim_n (n : nat) : Prop := forall rho c s s' ne le out o,
    srel rho c s s' -> map fst le = vars c -> erel rho (fv s) ne le ->
    exec_named n P ne s out = o -> good o -> exists n', exec_linear n' P' le s' out = o.

  (* the environment after binding one new variable at the end *)
  Lemma erel_snoc : forall rho Fs F_r c v (val val' : value) next ne le,
    map fst le = vars c -> NoDup (ids c) -> untouched rho [idn v] -> ~ In (idn v) (ids c) ->
    (forall x, In x (fv next) -> x <> idn v -> In x Fs /\ In (sub_n rho x) F_r) ->
    erel rho Fs ne le -> vrel val val' ->
    erel rho (fv next) ((v, val) :: ne)
         (rebind le (filter_by_set c F_r) (filter_by_set c F_r) ++ [(v, val')]).
  Proof.
    intros rho Fs F_r c v val val' next ne le Hsh Hnd Hu Hv HF He Hval x Hx.
    set (nc := filter_by_set c F_r).
    assert (Hnc : NoDup (ids nc)) by (apply fbs_NoDup; auto).
    destruct (N.eq_dec x (idn v)) as [->|Hne].
    - exists val, val'. simpl. rewrite N.eqb_refl.
      rewrite (untouched_sub_n rho [idn v]) by (simpl; auto).
      rewrite rebind_notin; auto.
      + simpl. rewrite N.eqb_refl. auto.
      + intros Hin. apply Hv. eapply fbs_ids_incl; eauto.
    - destruct (HF x Hx Hne) as [H1 H2]. destruct (He x H1) as [w [w' [L1 [L2 V]]]].
      exists w, w'. simpl. apply N.eqb_neq in Hne. rewrite N.eqb_sym in Hne. rewrite Hne.
      split; auto. split; auto.
      apply rebind_fbs_lookup; auto.
  Qed.

  Lemma srel_intro : forall rho c s s' f m,
    (stmt_size s <= f)%nat -> has_subst s = false -> untouched rho (binders s) ->
    ax_check Sg c (sub_s rho s) = true -> inv c (sub_s rho s) m ->
    s' = fst (lin f (sub_s rho s) c m) -> srel rho c s s'.
  Proof. intros rho c s s' f m H1 H2 H3 H4 H5 H6. exists f, m. auto 10. Qed.

  Lemma srel_fuel : forall rho c s s', srel rho c s s' ->
    exists f m, (stmt_size s <= S f)%nat /\ has_subst s = false /\ untouched rho (binders s) /\
                ax_check Sg c (sub_s rho s) = true /\ inv c (sub_s rho s) m /\
                s' = fst (lin (S f) (sub_s rho s) c m).
  Proof.
    intros rho c s s' [f [m [H1 H2]]]. destruct f as [|f].
    - pose proof (stmt_size_pos s). lia.
    - exists f, m. auto.
  Qed.

  Lemma sim_exit : forall n rho c v s' ne le out o,
    srel rho c (Exit v) s' -> map fst le = vars c -> erel rho (fv (Exit v)) ne le ->
    exec_named (S n) P ne (Exit v) out = o -> good o -> exists n', exec_linear n' P' le s' out = o.
  Proof.
    intros n rho c v s' ne le out o Hs Hsh He Hrun Hg.
    apply srel_fuel in Hs. destruct Hs as [f [m [_ [_ [_ [_ [_ ->]]]]]]].
    simpl in Hrun. simpl.
    destruct (lookup_int ne v) as [z|] eqn:E; [|subst; exfalso; eapply finish_stuck_not_good; eauto].
    assert (E' : lookup_int le (sub_id rho v) = Some z) by (eapply erel_int; eauto; simpl; auto).
    exists 1%nat. simpl. rewrite E'. auto.
  Qed.

  Lemma sim_ifc : forall n, sim_n n -> forall rho c so a b t e s' ne le out o,
    srel rho c (IfC so a b t e) s' -> map fst le = vars c -> erel rho (fv (IfC so a b t e)) ne le ->
    exec_named (S n) P ne (IfC so a b t e) out = o -> good o -> exists n', exec_linear n' P' le s' out = o.
  Proof.
    intros n IH rho c so a b t e s' ne le out o Hs Hsh He Hrun Hg.
    apply srel_fuel in Hs. destruct Hs as [f [m [Hsz [Hns [Hu [Hax [Hinv ->]]]]]]].
    simpl sub_s in *. rewrite lin_ifc. simpl in Hsz, Hns, Hu. apply orb_false_iff in Hns. destruct Hns as [Hns1 Hns2].
    simpl in Hax.
    apply andb_true_iff in Hax. destruct Hax as [Hax Hae].
    apply andb_true_iff in Hax. destruct Hax as [Hax Hat].
    assert (It : inv c (sub_s rho t) m) by exact (proj1 (inv_ifc _ _ _ _ _ _ _ _ Hinv (N.le_refl m))).
    pose proof (lin_good Sg f (sub_s rho t) c m) as Gt.
    destruct Gt as [_ [Gt2 _]]; [rewrite size_sub; lia|auto|auto|].
    destruct (lin f (sub_s rho t) c m) as [t' m1] eqn:Et. cbn [fst snd] in *.
    assert (Ie : inv c (sub_s rho e) m1) by exact (proj2 (inv_ifc _ _ _ _ _ _ _ _ Hinv Gt2)).
    destruct (lin f (sub_s rho e) c m1) as [e' m2] eqn:Ee. cbn [fst snd] in *.
    (* the named step *)
    simpl in Hrun.
    destruct (lookup_int ne a) as [x|] eqn:Ea; [|subst; exfalso; eapply finish_stuck_not_good; eauto].
    assert (Eb : exists y, match b with Some b0 => lookup_int ne b0 | None => Some 0%Z end = Some y).
    { destruct (match b with Some b0 => lookup_int ne b0 | None => Some 0%Z end) eqn:Eb; eauto.
      subst; exfalso; eapply finish_stuck_not_good; eauto. }
    destruct Eb as [y Eb]. rewrite Eb in Hrun.
    assert (Ea' : lookup_int le (sub_id rho a) = Some x).
    { eapply erel_int; eauto. simpl. destruct b; apply add_In; auto. right. apply add_In; auto. }
    assert (Eb' : match option_map (sub_id rho) b with Some b0 => lookup_int le b0 | None => Some 0%Z end = Some y).
    { destruct b as [b0|]; simpl in *; auto. eapply erel_int; eauto. apply add_In; auto. }
    assert (Hfv : forall z, In z (union (fv e) (fv t)) -> In z (fv (IfC so a b t e))).
    { intros z Hz. simpl. destruct b; repeat (apply add_In; right); auto. }
    destruct (eval_cmp so x y) eqn:Ec.
    - destruct (IH rho c t t' ne le out o) as [n1 Hn1]; auto.
      + apply srel_intro with (f := f) (m := m); auto; [lia| |rewrite Et; auto].
        intros z Hz. apply Hu. apply in_or_app; auto.
      + eapply erel_sub; eauto. intros z Hz. apply Hfv. apply union_In; auto.
      + exists (S n1). simpl. rewrite Ea', Eb', Ec. auto.
    - destruct (IH rho c e e' ne le out o) as [n1 Hn1]; auto.
      + apply srel_intro with (f := f) (m := m1); auto; [lia| |rewrite Ee; auto].
        intros z Hz. apply Hu. apply in_or_app; auto.
      + eapply erel_sub; eauto. intros z Hz. apply Hfv. apply union_In; auto.
      + exists (S n1). simpl. rewrite Ea', Eb', Ec. auto.
  Qed.

  Lemma erel_filter : forall rho Fs F' F_r c ne le,
    map fst le = vars c -> NoDup (ids c) -> erel rho Fs ne le ->
    (forall x, In x F' -> In x Fs /\ In (sub_n rho x) F_r) ->
    erel rho F' ne (rebind le (filter_by_set c F_r) (filter_by_set c F_r)).
  Proof.
    intros rho Fs F' F_r c ne le Hsh Hnd He HF x Hx.
    destruct (HF x Hx) as [H1 H2]. destruct (He x H1) as [w [w' [L1 [L2 V]]]].
    exists w, w'. split; auto. split; auto.
    apply rebind_fbs_lookup0; auto.
  Qed.

  Lemma shape_snoc_k : forall le (nc : ctx) v (val : value) k t,
    map fst (rebind le nc nc ++ [(v, val)]) = vars (nc ++ [mkb v k t]).
  Proof. intros. rewrite map_app, rebind_fst, vars_app; auto. Qed.

  Lemma fbs_in_ctx : forall c F b, In b (filter_by_set c F) -> In (idn (bvar b)) (ids c).
  Proof. intros c F b H. apply fbs_In in H. destruct H. apply In_ids; auto. Qed.

  (* what `lin` returns for the statement forms that keep the variables in F: the context is restricted
     to them, by a substitution unless nothing changes *)
  Lemma wrap_self : forall c le F core (m1 : N) n out,
    map fst le = vars c -> NoDup (ids c) ->
    exists k, exec_linear (k + n) P' le
        (fst (if ctx_eqb c (filter_by_set c F) then (core, m1)
              else (Substitute (self_re (filter_by_set c F)) core, m1))) out =
      exec_linear n P' (rebind le (filter_by_set c F) (filter_by_set c F)) core out.
  Proof.
    intros c le F core m1 n out Hsh Hnd. apply (wrap_exec P' c); auto.
    - intros b Hb. eapply fbs_in_ctx; eauto.
    - destruct (ctx_eqb c (filter_by_set c F)) eqn:Eq; cbn [fst]; auto. right. apply ctx_eqb_eq in Eq. auto.
  Qed.

  Lemma sim_print : forall n, sim_n n -> forall rho c nl v next s' ne le out o,
    srel rho c (PrintI64 nl v next) s' -> map fst le = vars c -> erel rho (fv (PrintI64 nl v next)) ne le ->
    exec_named (S n) P ne (PrintI64 nl v next) out = o -> good o -> exists n', exec_linear n' P' le s' out = o.
  Proof.
    intros n IH rho c nl v next s' ne le out o Hs Hsh He Hrun Hg.
    apply srel_fuel in Hs. destruct Hs as [f [m [Hsz [Hns [Hu [Hax [Hinv ->]]]]]]].
    simpl sub_s in *. rewrite lin_print. cbv zeta. simpl in Hsz, Hns, Hu, Hax.
    assert (I1 : NoDup (ids c)) by apply Hinv.
    apply andb_true_iff in Hax. destruct Hax as [Hv Hax].
    set (vr := sub_id rho v) in *. set (nr := sub_s rho next) in *.
    set (F := add (idn vr) (fv nr)). set (nc := filter_by_set c F).
    assert (Hnc : NoDup (ids nc)) by (apply fbs_NoDup; auto).
    assert (Hax' : ax_check Sg nc nr = true).
    { rewrite <- Hax. symmetry. apply ax_check_ext. intros x Hx.
      apply lookup_fbs_sub; auto. apply add_In; auto. }
    assert (Hinv' : inv nc nr m).
    { apply inv_gen with (c := c) (s := PrintI64 nl vr nr) (m := m) (pre := []) (post := []);
        [exact Hinv|lia|auto|simpl; rewrite app_nil_r; auto|].
      intros x Hx. left. eapply fbs_ids_incl; eauto. }
    destruct (lin f nr nc m) as [n' m1] eqn:En.
    (* named step *)
    simpl in Hrun.
    destruct (lookup_int ne v) as [z|] eqn:Ev; [|subst; exfalso; eapply finish_stuck_not_good; eauto].
    assert (Ev' : lookup_int le vr = Some z) by (eapply erel_int; eauto; simpl; apply add_In; auto).
    set (le1 := rebind le nc nc).
    assert (Ev1 : lookup_int le1 vr = Some z) by (apply lookup_int_fbs; auto; apply add_In; auto).
    destruct (IH rho nc next n' ne le1 ((nl, z) :: out) o) as [n1 Hn1]; auto.
    { apply srel_intro with (f := f) (m := m); auto; [lia|fold nr; rewrite En; auto]. }
    { unfold le1. apply rebind_fst; auto. }
    { unfold le1, nc. eapply erel_filter; eauto. intros x Hx. split.
      - simpl. apply add_In; auto.
      - apply add_In. right. apply fv_sub; auto. }
    destruct (wrap_self c le F (PrintI64 nl vr n') m1 (S n1) out Hsh I1) as [k Hk]. fold nc in Hk.
    exists (k + S n1)%nat. rewrite Hk. fold le1. simpl. rewrite Ev1. auto.
  Qed.

  Lemma sim_literal : forall n, sim_n n -> forall rho c k v next s' ne le out o,
    srel rho c (Literal k v next) s' -> map fst le = vars c -> erel rho (fv (Literal k v next)) ne le ->
    exec_named (S n) P ne (Literal k v next) out = o -> good o -> exists n', exec_linear n' P' le s' out = o.
  Proof.
    intros n IH rho c k v next s' ne le out o Hs Hsh He Hrun Hg.
    apply srel_fuel in Hs. destruct Hs as [f [m [Hsz [Hns [Hu [Hax [Hinv ->]]]]]]].
    simpl sub_s in *. rewrite lin_literal. cbv zeta. simpl in Hsz, Hns, Hu, Hax.
    assert (I1 : NoDup (ids c)) by apply Hinv.
    set (nr := sub_s rho next) in *. set (vb := mkb v Ext I64).
    destruct (snoc_ok Sg c (Literal k v nr) m (fv nr) vb nr [] Hinv) as [Hax' [Hinv' [Hnd' [Hnc Iv]]]]; auto.
    set (nc := filter_by_set c (fv nr)) in *.
    destruct (lin f nr (nc ++ [vb]) m) as [n' m1] eqn:En.
    simpl in Hrun.
    set (le1 := rebind le nc nc).
    destruct (IH rho (nc ++ [vb]) next n' ((v, VInt k) :: ne) (le1 ++ [(v, VInt k)]) out o) as [n1 Hn1]; auto.
    { apply srel_intro with (f := f) (m := m); auto; [lia| | |fold nr; rewrite En; auto].
      - intros x Hx. apply Hu. simpl; auto.
      - apply Hinv'. lia. }
    { unfold le1. apply shape_snoc_k. }
    { unfold le1, nc. eapply erel_snoc; eauto.
      - intros x [<-|[]]. apply Hu. simpl; auto.
      - intros x Hx Hne. split.
        + simpl. apply remove_In; auto.
        + apply fv_sub; auto. intros y Hy. apply Hu. simpl; auto.
      - constructor. }
    destruct (wrap_self c le (fv nr) (Literal k v n') m1 (S n1) out Hsh I1) as [j Hj]. fold nc in Hj.
    exists (j + S n1)%nat. rewrite Hj. fold le1. simpl. auto.
  Qed.

  Lemma sim_op : forall n, sim_n n -> forall rho c a op b v next s' ne le out o,
    srel rho c (Op a op b v next) s' -> map fst le = vars c -> erel rho (fv (Op a op b v next)) ne le ->
    exec_named (S n) P ne (Op a op b v next) out = o -> good o -> exists n', exec_linear n' P' le s' out = o.
  Proof.
    intros n IH rho c a op b v next s' ne le out o Hs Hsh He Hrun Hg.
    apply srel_fuel in Hs. destruct Hs as [f [m [Hsz [Hns [Hu [Hax [Hinv ->]]]]]]].
    simpl sub_s in *. rewrite lin_op. cbv zeta. simpl in Hsz, Hns, Hu, Hax.
    assert (I1 : NoDup (ids c)) by apply Hinv.
    apply andb_true_iff in Hax. destruct Hax as [Hax Hn].
    apply andb_true_iff in Hax. destruct Hax as [Ha Hb].
    set (ar := sub_id rho a) in *. set (br := sub_id rho b) in *.
    set (nr := sub_s rho next) in *. set (vb := mkb v Ext I64).
    set (F := add (idn br) (add (idn ar) (fv nr))).
    destruct (snoc_ok Sg c (Op ar op br v nr) m F vb nr [] Hinv) as [Hax' [Hinv' [Hnd' [Hnc Iv]]]]; auto.
    { intros x Hx. left. apply add_In. right. apply add_In. auto. }
    set (nc := filter_by_set c F) in *.
    destruct (lin f nr (nc ++ [vb]) m) as [n' m1] eqn:En.
    simpl in Hrun.
    destruct (lookup_int ne a) as [x|] eqn:Ea; [|subst; exfalso; eapply finish_stuck_not_good; eauto].
    destruct (lookup_int ne b) as [y|] eqn:Eb; [|subst; exfalso; eapply finish_stuck_not_good; eauto].
    assert (Ea' : lookup_int le ar = Some x).
    { eapply erel_int; eauto. simpl. apply add_In. right. apply add_In. auto. }
    assert (Eb' : lookup_int le br = Some y) by (eapply erel_int; eauto; simpl; apply add_In; auto).
    set (le1 := rebind le nc nc).
    assert (Ea1 : lookup_int le1 ar = Some x).
    { apply lookup_int_fbs; auto. apply add_In. right. apply add_In. auto. }
    assert (Eb1 : lookup_int le1 br = Some y) by (apply lookup_int_fbs; auto; apply add_In; auto).
    destruct (wrap_self c le F (Op ar op br v n') m1 1%nat out Hsh I1) as [j0 Hj0]. fold nc in Hj0.
    destruct (eval_op op x y) as [z|why] eqn:Eo.
    - destruct (IH rho (nc ++ [vb]) next n' ((v, VInt z) :: ne) (le1 ++ [(v, VInt z)]) out o) as [n1 Hn1]; auto.
      { apply srel_intro with (f := f) (m := m); auto; [lia| | |fold nr; rewrite En; auto].
        - intros w Hw. apply Hu. simpl; auto.
        - apply Hinv'. lia. }
      { unfold le1. apply shape_snoc_k. }
      { unfold le1, nc. eapply erel_snoc; eauto.
        - intros w [<-|[]]. apply Hu. simpl; auto.
        - intros w Hw Hne. split.
          + simpl. apply add_In. right. apply add_In. right. apply remove_In; auto.
          + apply add_In. right. apply add_In. right. apply fv_sub; auto. intros u Hu'. apply Hu. simpl; auto.
        - constructor. }
      destruct (wrap_self c le F (Op ar op br v n') m1 (S n1) out Hsh I1) as [j Hj]. fold nc in Hj.
      exists (j + S n1)%nat. rewrite Hj. fold le1. simpl. rewrite Ea1, Eb1, Eo. auto.
    - exists (j0 + 1)%nat. rewrite Hj0. fold le1. simpl. rewrite Ea1, Eb1, Eo. auto.
  Qed.

  Lemma args_vrel : forall rho F ne le (args : ctx) vs,
    erel rho F ne le -> (forall b, In b args -> In (idn (bvar b)) F) ->
    lookups ne (vars args) = Some vs ->
    Forall2 vrel vs (map (fun b => getv le (idn (bvar b))) (map (sub_b rho) args)).
  Proof.
    intros rho F ne le args; induction args as [|b r IH]; intros vs He HF Hl.
    - simpl in Hl. inversion Hl. constructor.
    - change (vars (b :: r)) with (bvar b :: vars r) in Hl. cbn [lookups] in Hl.
      unfold lookup_id in Hl. destruct (lookup ne (idn (bvar b))) as [w|] eqn:E; try discriminate.
      destruct (lookups ne (vars r)) as [ws|] eqn:E'; try discriminate. inversion Hl; subst.
      simpl. constructor.
      + destruct (He (idn (bvar b))) as [u [u' [L1 [L2 V]]]]; [apply HF; simpl; auto|].
        rewrite sub_id_n, (getv_Some _ _ _ L2). congruence.
      + apply IH; auto. intros b0 Hb0. apply HF. simpl; auto.
  Qed.

  Lemma has_b_sub_ids : forall rho (c : ctx) (args : ctx),
    forallb (has_b c) (map (sub_b rho) args) = true ->
    forall b, In b (map (sub_b rho) args) -> In (idn (bvar b)) (ids c).
  Proof. intros rho c args H b Hb. rewrite forallb_forall in H. apply has_b_In_ids. auto. Qed.

  Lemma same_shape_refl : forall a, same_shape a a.
  Proof. induction a; constructor; auto. Qed.

  (* what `lin` returns for a let, both branches presented alike *)
  Lemma lin_let_form : forall f v t tag (ar : ctx) nr c m,
    let nc := filter_by_set c (fv nr) in
    (forall x, In x (ids nc) -> x <= m) -> (forall x, In x (ids ar) -> x <= m) ->
    exists args' n' m1, m <= m1 /\ same_shape ar args' /\
      n' = fst (lin f nr (nc ++ [mkb v Prd t]) m1) /\
      (fst (lin (S f) (Let v t tag ar nr) c m) =
         Substitute (combine (nc ++ args') (vars (nc ++ ar))) (Let v t tag args' n') \/
       (fst (lin (S f) (Let v t tag ar nr) c m) = Let v t tag args' n' /\ c = nc ++ ar /\ nc ++ args' = nc ++ ar)).
  Proof.
    intros f v t tag ar nr c m nc Hb1 Hb2. rewrite lin_let. cbv zeta. fold nc.
    destruct (ctx_eqb c (nc ++ ar)) eqn:Eq.
    - destruct (lin f nr (nc ++ [mkb v Prd t]) m) as [n0 m1] eqn:En.
      exists ar, n0, m. split; [lia|]. split; [apply same_shape_refl|]. split; [rewrite En; auto|].
      right. apply ctx_eqb_eq in Eq. auto.
    - destruct (freshen ar (ids nc) m) as [args0 m1] eqn:Ef.
      destruct (freshen_spec _ _ _ _ _ Ef Hb1 Hb2) as [F1 [F2 _]].
      destruct (lin f nr (nc ++ [mkb v Prd t]) m1) as [n0 m2] eqn:En.
      exists args0, n0, m1. split; auto. split; auto. split; [rewrite En; auto|]. left. auto.
  Qed.

  Lemma sim_let : forall n, sim_n n -> forall rho c v t tag args next s' ne le out o,
    srel rho c (Let v t tag args next) s' -> map fst le = vars c -> erel rho (fv (Let v t tag args next)) ne le ->
    exec_named (S n) P ne (Let v t tag args next) out = o -> good o -> exists n', exec_linear n' P' le s' out = o.
  Proof.
    intros n IH rho c v t tag args next s' ne le out o Hs Hsh He Hrun Hg.
    apply srel_fuel in Hs. destruct Hs as [f [m [Hsz [Hns [Hu [Hax [Hinv ->]]]]]]].
    simpl sub_s in *. simpl in Hsz, Hns, Hu, Hax.
    assert (I1 : NoDup (ids c)) by apply Hinv.
    assert (I4 : forall x, In x (ids c) -> x <= m) by apply Hinv.
    apply andb_true_iff in Hax. destruct Hax as [Hax Hn].
    apply andb_true_iff in Hax. destruct Hax as [Hok Hargs].
    set (ar := map (sub_b rho) args) in *. set (nr := sub_s rho next) in *. set (vb := mkb v Prd t).
    destruct (snoc_ok Sg c (Let v t tag ar nr) m (fv nr) vb nr [] Hinv) as [Hax' [Hinv' [Hnd' [Hnc Iv]]]]; auto.
    assert (Har : forall b, In b ar -> In (idn (bvar b)) (ids c)) by (apply has_b_sub_ids; auto).
    destruct (lin_let_form f v t tag ar nr c m) as [args' [n' [m1 [Hm1 [Hshape [Hn' Hform]]]]]].
    { intros x Hx. apply I4. eapply fbs_ids_incl; eauto. }
    { intros x Hx. apply In_ids_ex in Hx. destruct Hx as [b [B1 B2]]. subst. auto. }
    set (nc := filter_by_set c (fv nr)) in *.
    (* named step *)
    simpl in Hrun.
    destruct (ty_name t) as [tn|] eqn:Et; [|subst; exfalso; eapply finish_stuck_not_good; eauto].
    destruct t as [|tn0]; simpl in Et; try discriminate. inversion Et; subst tn0.
    destruct (lookups ne (vars args)) as [vs|] eqn:El; [|subst; exfalso; eapply finish_stuck_not_good; eauto].
    assert (Hvs : Forall2 vrel vs (map (fun b => getv le (idn (bvar b))) ar)).
    { eapply args_vrel; eauto. intros b Hb. simpl. apply union_In. left. apply In_ids; auto. }
    assert (Hlen : length args' = length ar) by (symmetry; apply same_shape_length; auto).
    set (le0 := rebind le nc nc). set (fs := rebind le ar args').
    destruct (IH rho (nc ++ [vb]) next n' ((v, VObj tn tag vs) :: ne)
                 (le0 ++ [(v, VObj tn tag (map snd fs))]) out o) as [n1 Hn1]; auto.
    { apply srel_intro with (f := f) (m := m1); [lia|auto| |exact Hax'| |exact Hn'].
      - intros x Hx. apply Hu. simpl; auto.
      - apply Hinv'. lia. }
    { unfold le0. apply shape_snoc_k. }
    { unfold le0, nc. eapply erel_snoc; eauto.
      - intros x [<-|[]]. apply Hu. simpl; auto.
      - intros x Hx Hne. split.
        + simpl. apply union_In. right. apply remove_In; auto.
        + apply fv_sub; auto. intros y Hy. apply Hu. simpl; auto.
      - constructor. unfold fs. rewrite rebind_snd by auto. auto. }
    destruct (wrap_exec P' c le (nc ++ args') (nc ++ ar) (Let v (Decl tn) tag args' n')
                        (fst (lin (S f) (Let v (Decl tn) tag ar nr) c m)) (S n1) out Hsh I1) as [j Hj];
      [rewrite !app_length; lia| |exact Hform|].
    { intros b Hb. apply in_app_or in Hb. destruct Hb as [Hb|Hb]; auto. eapply fbs_in_ctx; eauto. }
    exists (j + S n1)%nat. rewrite Hj. rewrite rebind_app by auto. fold le0 fs.
    rewrite let_step; auto.
    - unfold fs. rewrite rebind_length; auto.
    - unfold fs. apply env_ids_shape. apply rebind_fst; auto.
  Qed.
  Lemma Forall2_map_l : forall {A B C} (R : B -> C -> Prop) (g : A -> B) l l',
    Forall2 R (map g l) l' <-> Forall2 (fun x y => R (g x) y) l l'.
  Proof.
    intros A B C R g l; induction l as [|x l IH]; intros l'; simpl; split; intros H; inversion H; subst; constructor; auto;
      apply IH; auto.
  Qed.

  Lemma find_clause_F2 : forall (R : clause -> clause -> Prop) cls cls' tag cl,
    Forall2 (fun a b => cl_xtor b = cl_xtor a /\ R a b) cls cls' ->
    find_clause cls tag = Some cl ->
    exists cl', find_clause cls' tag = Some cl' /\ R cl cl' /\ In cl cls.
  Proof.
    intros R cls cls' tag cl H; induction H as [|a b cls cls' [H1 H2] H IH]; intros Hf; simpl in *; [discriminate|].
    unfold find_clause in *. simpl in *. rewrite H1.
    destruct (ident_eqb (cl_xtor a) tag) eqn:E.
    - inversion Hf; subst. exists b. auto.
    - destruct (IH Hf) as [cl' [F1 [F2 F3]]]. exists cl'. auto.
  Qed.

  Lemma lookup_combine_F2 : forall (R : value -> value -> Prop) xs fs fs' x,
    Forall2 R fs fs' -> length xs = length fs -> In x (map idn xs) ->
    exists w w', lookup (combine xs fs) x = Some w /\ lookup (combine xs fs') x = Some w' /\ R w w'.
  Proof.
    intros R xs fs fs' x H; revert xs; induction H as [|w w' fs fs' Hw H IH]; intros [|y xs] Hlen Hx; simpl in *; try tauto; try discriminate.
    destruct (N.eqb (idn y) x) eqn:E.
    - exists w, w'. auto.
    - apply N.eqb_neq in E. destruct Hx as [Hx|Hx]; [congruence|]. apply IH; auto.
  Qed.


  Lemma erel_clause_sw : forall rho Fs F_r c (ccl : ctx) body (fs fs' : list value) e1 e1' ne le,
    map fst le = vars c -> NoDup (ids c) ->
    untouched rho (ids ccl) -> (forall y, In y (ids ccl) -> ~ In y (ids c)) ->
    bind (vars ccl) fs = Some e1 -> bind (vars ccl) fs' = Some e1' -> Forall2 vrel fs fs' ->
    (forall x, In x (fv body) -> ~ In x (ids ccl) -> In x Fs /\ In (sub_n rho x) F_r) ->
    erel rho Fs ne le ->
    erel rho (fv body) (e1 ++ ne) (rebind le (filter_by_set c F_r) (filter_by_set c F_r) ++ e1').
  Proof.
    intros rho Fs F_r c ccl body fs fs' e1 e1' ne le Hsh Hnd Hu Hd Hb Hb' Hfs HF He x Hx.
    apply bind_Some_length in Hb. destruct Hb as [Hl1 ->].
    apply bind_Some_length in Hb'. destruct Hb' as [Hl1' ->].
    destruct (in_dec N.eq_dec x (ids ccl)) as [Hin|Hnin].
    - rewrite (untouched_sub_n rho (ids ccl)) by auto.
      destruct (lookup_combine_F2 vrel (vars ccl) fs fs' x Hfs Hl1) as [w [w' [L1 [L2 V]]]].
      { rewrite ids_vars. auto. }
      exists w, w'. split; [rewrite lookup_app, L1; auto|]. split; auto.
      rewrite rebind_notin; auto. intros Hc. apply (Hd x Hin). eapply fbs_ids_incl; eauto.
    - destruct (HF x Hx Hnin) as [H1 H2]. destruct (He x H1) as [w [w' [L1 [L2 V]]]].
      exists w, w'. split; [|split; auto].
      + rewrite lookup_app, lookup_combine_notin; auto.
      + apply rebind_fbs_lookup; auto.
  Qed.

  Lemma lin_switch_form : forall f vr t clsr c m,
    let nc := filter_by_set c (fv_clauses clsr) in
    let cls' := fst (lin_cls (lin f) (fun cc => nc ++ cc) clsr m) in
    exists v',
      (fst (lin (S f) (Switch vr t clsr) c m) =
         Substitute (combine (nc ++ [mkb v' Prd t]) (vars (nc ++ [mkb vr Prd t]))) (Switch v' t cls') \/
       (fst (lin (S f) (Switch vr t clsr) c m) = Switch v' t cls' /\ c = nc ++ [mkb vr Prd t] /\
        nc ++ [mkb v' Prd t] = nc ++ [mkb vr Prd t])).
  Proof.
    intros f vr t clsr c m nc cls'. rewrite lin_switch. cbv zeta. fold nc. unfold cls'.
    destruct (lin_cls (lin f) (fun cc => nc ++ cc) clsr m) as [cl1 m1] eqn:Ec. cbn [fst].
    destruct (ctx_eqb c (nc ++ [mkb vr Prd t])) eqn:Eq.
    - exists vr. right. apply ctx_eqb_eq in Eq. auto.
    - destruct (mem (idn vr) (ids nc)); cbn [fst]; eexists; left; reflexivity.
  Qed.

  (* free variables of a renamed clause *)
  Lemma fv_clauses_sub : forall rho cls cl x,
    In cl cls -> has_subst (cl_body cl) = false -> untouched rho (ids (cl_ctx cl) ++ binders (cl_body cl)) ->
    In x (fv (cl_body cl)) -> ~ In x (ids (cl_ctx cl)) ->
    In (sub_n rho x) (fv_clauses (map (fun c0 => (cl_xtor c0, cl_ctx c0, sub_s rho (cl_body c0))) cls)).
  Proof.
    intros rho cls cl x Hin Hns Hu Hx Hnx.
    apply fv_clauses_In. exists (cl_xtor cl, cl_ctx cl, sub_s rho (cl_body cl)).
    split; [apply in_map_iff; exists cl; auto|].
    unfold cl_body at 1, cl_ctx at 1; simpl. split.
    - apply fv_sub; auto. intros y Hy. apply Hu. apply in_or_app; auto.
    - apply sub_n_untouched_notin; [|exact Hnx]. intros y Hy. apply Hu. apply in_or_app; auto.
  Qed.

  Lemma F2_length : forall {A B} (R : A -> B -> Prop) l l', Forall2 R l l' -> length l = length l'.
  Proof. intros A B R l l' H; induction H; simpl; auto. Qed.

  (* the clause loop on a renamed clause list, with the equation of every output body exposed *)
  Lemma lin_cls_map_spec : forall (L : stmt -> ctx -> N -> stmt * N) mk (h : stmt -> stmt) cls m,
    (forall cl m0, In cl cls -> m <= m0 -> m0 <= snd (L (h (cl_body cl)) (mk (cl_ctx cl)) m0)) ->
    Forall2 (fun cl cl' => cl_xtor cl' = cl_xtor cl /\ (cl_ctx cl' = cl_ctx cl /\
               exists m0, m <= m0 /\ cl_body cl' = fst (L (h (cl_body cl)) (mk (cl_ctx cl)) m0)))
            cls (fst (lin_cls L mk (map (fun c0 => (cl_xtor c0, cl_ctx c0, h (cl_body c0))) cls) m)).
  Proof.
    intros L mk h cls; induction cls as [|[[x cc] body] r IH]; intros m H; simpl; [constructor|].
    cl_simpl.
    pose proof (H (x, cc, body) m (or_introl eq_refl) (N.le_refl m)) as H0. cl_simpl.
    destruct (L (h body) (mk cc) m) as [b' m'] eqn:E. simpl in H0.
    assert (IH' := IH m'). 
    destruct (lin_cls L mk (map (fun c0 => (cl_xtor c0, cl_ctx c0, h (cl_body c0))) r) m') as [r' m''] eqn:E'.
    simpl in *. constructor.
    - cl_simpl. repeat split; auto. exists m. split; [lia|]. rewrite E. auto.
    - eapply Forall2_impl'; [|apply IH'].
      + intros a b [A1 [A2 [m0 [A3 A4]]]]. repeat split; auto. exists m0. split; auto. lia.
      + intros cl m0 Hcl Hm0. apply H; auto. lia.
  Qed.

  Lemma sim_switch : forall n, sim_n n -> forall rho c v t cls s' ne le out o,
    srel rho c (Switch v t cls) s' -> map fst le = vars c -> erel rho (fv (Switch v t cls)) ne le ->
    exec_named (S n) P ne (Switch v t cls) out = o -> good o -> exists n', exec_linear n' P' le s' out = o.
  Proof.
    intros n IH rho c v t cls s' ne le out o Hs Hsh He Hrun Hg.
    apply srel_fuel in Hs. destruct Hs as [f [m [Hsz [Hns [Hu [Hax [Hinv ->]]]]]]].
    rewrite sub_s_switch in *.
    set (vr := sub_id rho v) in *.
    set (clsr := map (fun c0 => (cl_xtor c0, cl_ctx c0, sub_s rho (cl_body c0))) cls) in *.
    rewrite size_switch in Hsz. rewrite has_subst_switch in Hns. rewrite binders_switch in Hu.
    rewrite ax_check_switch in Hax.
    assert (I1 : NoDup (ids c)) by apply Hinv.
    apply andb_true_iff in Hax. destruct Hax as [Hax Hcl].
    apply andb_true_iff in Hax. destruct Hax as [Hv Hok].
    destruct (lin_switch_form f vr t clsr c m) as [v' Hform].
    set (nc := filter_by_set c (fv_clauses clsr)) in *.
    assert (Hnc : NoDup (ids nc)) by (apply fbs_NoDup; auto).
    (* the clauses of the output *)
    assert (H2' := lin_cls_map_spec (lin f) (fun cc => nc ++ cc) (sub_s rho) cls m).
    fold clsr in H2'.
    assert (H2 : forall cl m0, In cl cls -> m <= m0 ->
                   m0 <= snd (lin f (sub_s rho (cl_body cl)) (nc ++ cl_ctx cl) m0)).
    { intros cl m0 Hin Hm0.
      assert (Hclr : In (cl_xtor cl, cl_ctx cl, sub_s rho (cl_body cl)) clsr).
      { unfold clsr. apply in_map_iff. exists cl; auto. }
      destruct (switch_clause_ok _ c vr t clsr m _ m0 Hinv Hcl Hclr Hm0) as [K1 [K2 _]]. cl_simpl.
      destruct (lin_good Sg f (sub_s rho (cl_body cl)) (nc ++ cl_ctx cl) m0) as [_ [G _]]; auto.
      rewrite size_sub. apply size_cls_In in Hin. lia. }
    specialize (H2' H2).
    set (cls' := fst (lin_cls (lin f) (fun cc => nc ++ cc) clsr m)) in *.
    (* the named step *)
    simpl in Hrun. unfold lookup_id in Hrun.
    destruct (He (idn v)) as [w [w' [L1 [L2 V]]]]; [rewrite fv_switch; apply add_In; auto|].
    rewrite L1 in Hrun.
    destruct w as [z|ty0 tag fs|ty0 cl0 ce0]; try (subst; exfalso; eapply finish_stuck_not_good; eauto; fail).
    destruct (find_clause cls tag) as [cl|] eqn:Ef; [|subst; exfalso; eapply finish_stuck_not_good; eauto].
    destruct (bind (vars (cl_ctx cl)) fs) as [e1|] eqn:Eb; [|subst; exfalso; eapply finish_stuck_not_good; eauto].
    inversion V as [|ty1 tag1 fs1 fs' Hfs|]; subst.
    destruct (find_clause_F2
                (fun a b => cl_ctx b = cl_ctx a /\
                   exists m0, m <= m0 /\ cl_body b = fst (lin f (sub_s rho (cl_body a)) (nc ++ cl_ctx a) m0))
                cls cls' tag cl H2' Ef) as [cl' [Ef' [[Hctx [m0 [Hm0 Hbody]]] Hin]]].
    assert (Hlen : length (vars (cl_ctx cl)) = length fs) by (apply bind_Some_length in Eb; tauto).
    assert (Eb' : bind (vars (cl_ctx cl')) fs' = Some (combine (vars (cl_ctx cl)) fs')).
    { rewrite Hctx. apply bind_combine. rewrite Hlen. eapply F2_length; eauto. }
    set (e1' := combine (vars (cl_ctx cl)) fs') in *.
    set (le0 := rebind le nc nc).
    assert (Hclr : In (cl_xtor cl, cl_ctx cl, sub_s rho (cl_body cl)) clsr).
    { unfold clsr. apply in_map_iff. exists cl; auto. }
    destruct (switch_clause_ok _ c vr t clsr m _ m0 Hinv Hcl Hclr Hm0) as [K1 [K2 K3]].
    cl_simpl.
    assert (Hucl : untouched rho (ids (cl_ctx cl) ++ binders (cl_body cl))).
    { intros y Hy. apply Hu. eapply binders_cls_In; eauto. }
    assert (Hnscl : has_subst (cl_body cl) = false).
    { apply (existsb_false_In (fun c0 => has_subst (cl_body c0)) cls cl Hns Hin). }
    destruct (IH rho (nc ++ cl_ctx cl) (cl_body cl) (cl_body cl') (e1 ++ ne) (le0 ++ e1') out
                 (exec_named n P (e1 ++ ne) (cl_body cl) out)) as [n1 Hn1]; auto.
    { apply srel_intro with (f := f) (m := m0); auto.
      - apply size_cls_In in Hin. lia.
      - intros y Hy. apply Hucl. apply in_or_app; auto. }
    { unfold le0, e1'. rewrite map_app, rebind_fst, vars_app by auto.
      rewrite combine_map_fst; auto. rewrite Hlen. eapply F2_length; eauto. }
    { unfold le0, nc. eapply erel_clause_sw with (fs := fs) (fs' := fs'); eauto.
      - intros y Hy. apply Hucl. apply in_or_app; auto.
      - unfold e1'. apply bind_combine. rewrite Hlen. eapply F2_length; eauto.
      - intros x Hx Hnx. split.
        + rewrite fv_switch. apply add_In. right. apply fv_clauses_In. exists cl; auto.
        + eapply fv_clauses_sub; eauto. }
    destruct (wrap_exec P' c le (nc ++ [mkb v' Prd t]) (nc ++ [mkb vr Prd t]) (Switch v' t cls')
                        (fst (lin (S f) (Switch vr t clsr) c m)) (S n1) out Hsh I1) as [j Hj];
      [rewrite !app_length; auto| |exact Hform|].
    { intros b Hb. apply in_app_or in Hb. destruct Hb as [Hb|[<-|[]]].
      - eapply fbs_in_ctx; eauto.
      - simpl. eapply has_In_ids; eauto. }
    exists (j + S n1)%nat. rewrite Hj. rewrite rebind_app by auto. fold le0.
    assert (Eone : rebind le [mkb vr Prd t] [mkb v' Prd t] = [(v', VObj ty0 tag fs')]).
    { unfold rebind; simpl. unfold vr. rewrite sub_id_n, (getv_Some _ _ _ L2). auto. }
    rewrite Eone. rewrite (switch_step P' n1 le0 v' v' ty0 t tag fs' cls' cl' e1'); auto.
  Qed.
  Lemma find_def_lin_defs : forall ds m l d,
    (forall d0, In d0 ds -> def_ok Sg m d0 = true) ->
    find (fun d0 => ident_eqb (dname d0) l) ds = Some d ->
    exists d' m0, find (fun d0 => ident_eqb (dname d0) l) (fst (lin_defs ds m)) = Some d' /\
                  dctx d' = dctx d /\ def_ok Sg m0 d = true /\
                  dbody d' = fst (lin (stmt_size (dbody d)) (dbody d) (dctx d) m0).
  Proof.
    induction ds as [|d0 r IH]; intros m l d Hok Hf; simpl in *; [discriminate|].
    pose proof (linearize_def_spec Sg d0 m (Hok d0 (or_introl eq_refl))) as D.
    unfold lin_def in *.
    destruct (lin (stmt_size (dbody d0)) (dbody d0) (dctx d0) m) as [b m1] eqn:E.
    destruct D as [_ [D2 _]]. simpl in D2.
    destruct (lin_defs r m1) as [r' m2] eqn:E'. simpl.
    destruct (ident_eqb (dname d0) l) eqn:El.
    - inversion Hf; subst d0. eexists. exists m. split; [reflexivity|]. simpl. rewrite E. auto.
    - destruct (IH m1 l d) as [d' [m0 [F1 F2]]]; auto.
      { intros d1 Hd1. eapply def_ok_mono; [|apply Hok; auto]. auto. }
      rewrite E' in F1. simpl in F1. eauto.
  Qed.

  Lemma find_def_linearize : forall l d, find_def P l = Some d ->
    exists d' m0, find_def P' l = Some d' /\ dctx d' = dctx d /\ def_ok Sg m0 d = true /\
                  dbody d' = fst (lin (stmt_size (dbody d)) (dbody d) (dctx d) m0).
  Proof.
    intros l d H. unfold find_def in *.
    destruct (find_def_lin_defs (pdefs P) (pmax P) l d (prog_ok_defs P HP) H) as [d' [m0 [F1 F2]]].
    exists d', m0. split; auto. unfold linearize.
    destruct (lin_defs (pdefs P) (pmax P)) as [ds mm] eqn:E. simpl in *. auto.
  Qed.

  Lemma srel_def : forall d d' m0, def_ok Sg m0 d = true ->
    dbody d' = fst (lin (stmt_size (dbody d)) (dbody d) (dctx d) m0) ->
    srel [] (dctx d) (dbody d) (dbody d').
  Proof.
    intros d d' m0 Hok Hb. apply def_ok_inv in Hok. destruct Hok as [Hax Hinv].
    assert (Hns : has_subst (dbody d) = false) by (eapply ax_check_no_subst; eauto).
    apply srel_intro with (f := stmt_size (dbody d)) (m := m0); auto.
    - intros x Hx. simpl. tauto.
    - rewrite sub_s_nil; auto.
    - rewrite sub_s_nil; auto.
    - rewrite sub_s_nil; auto.
  Qed.

  (* the callee's / a method's parameters bound to related values *)
  Lemma erel_params : forall (ps : ctx) ws ws' F,
    Forall2 vrel ws ws' -> length (vars ps) = length ws -> (forall x, In x F -> In x (ids ps)) ->
    erel [] F (combine (vars ps) ws) (combine (vars ps) ws').
  Proof.
    intros ps ws ws' F Hws Hlen HF x Hx. change (sub_n [] x) with x.
    apply (lookup_combine_F2 vrel (vars ps) ws ws' x Hws Hlen). rewrite ids_vars. auto.
  Qed.

  Lemma lin_call_form : forall f l (ar : ctx) c m,
    (forall x, In x (ids ar) -> x <= m) ->
    exists fr, same_shape ar fr /\
      (fst (lin (S f) (Call l ar) c m) = Substitute (combine fr (vars ar)) (Call l []) \/
       (fst (lin (S f) (Call l ar) c m) = Call l [] /\ c = ar /\ fr = ar)).
  Proof.
    intros f l ar c m Hb. rewrite lin_call.
    destruct (ctx_eqb c ar) eqn:Eq.
    - exists ar. split; [apply same_shape_refl|]. right. apply ctx_eqb_eq in Eq. auto.
    - destruct (freshen ar [] m) as [fr m1] eqn:Ef.
      destruct (freshen_positions _ _ _ _ _ Ef) as [F2 _]. exists fr. split; auto.
  Qed.

  Lemma sim_call : forall n, sim_n n -> forall rho c l args s' ne le out o,
    srel rho c (Call l args) s' -> map fst le = vars c -> erel rho (fv (Call l args)) ne le ->
    exec_named (S n) P ne (Call l args) out = o -> good o -> exists n', exec_linear n' P' le s' out = o.
  Proof.
    intros n IH rho c l args s' ne le out o Hs Hsh He Hrun Hg.
    apply srel_fuel in Hs. destruct Hs as [f [m [Hsz [Hns [Hu [Hax [Hinv ->]]]]]]].
    simpl sub_s in *. simpl in Hax.
    assert (I1 : NoDup (ids c)) by apply Hinv.
    assert (I4 : forall x, In x (ids c) -> x <= m) by apply Hinv.
    set (ar := map (sub_b rho) args) in *.
    destruct (lookup_label Sg l) as [ps|] eqn:El; try discriminate.
    apply andb_true_iff in Hax. destruct Hax as [Hsig Hargs].
    assert (Har : forall b, In b ar -> In (idn (bvar b)) (ids c)) by (apply has_b_sub_ids; auto).
    destruct (lin_call_form f l ar c m) as [fr [Hshape Hform]].
    { intros x Hx. apply In_ids_ex in Hx. destruct Hx as [b [B1 B2]]. subst. auto. }
    (* named step *)
    simpl in Hrun.
    destruct (find_def P l) as [d|] eqn:Ed; [|subst; exfalso; eapply finish_stuck_not_good; eauto].
    destruct (lookups ne (vars args)) as [ws|] eqn:Ew; [|subst; exfalso; eapply finish_stuck_not_good; eauto].
    destruct (bind (vars (dctx d)) ws) as [ne'|] eqn:Eb; [|subst; exfalso; eapply finish_stuck_not_good; eauto].
    apply bind_Some_length in Eb. destruct Eb as [Hlen ->].
    assert (Hws : Forall2 vrel ws (map (fun b => getv le (idn (bvar b))) ar)).
    { eapply args_vrel; eauto. intros b Hb. simpl. apply union_In. left. apply In_ids; auto. }
    destruct (find_def_linearize l d Ed) as [d' [m0 [Ed' [Hctx [Hok Hbody]]]]].
    set (ws' := map (fun b => getv le (idn (bvar b))) ar) in *.
    assert (Hlen' : length (vars (dctx d)) = length ws') by (rewrite Hlen; eapply F2_length; eauto).
    pose proof (def_ok_inv _ _ _ Hok) as [Haxd _].
    destruct (IH [] (dctx d) (dbody d) (dbody d') (combine (vars (dctx d)) ws) (combine (vars (dctx d)) ws') out o)
      as [n1 Hn1]; auto.
    { eapply srel_def; eauto. }
    { apply combine_map_fst; auto. }
    { apply erel_params; auto. intros x Hx. eapply ax_check_fv; eauto. }
    assert (Hfrlen : length fr = length ar) by (symmetry; apply same_shape_length; auto).
    destruct (wrap_exec P' c le fr ar (Call l []) (fst (lin (S f) (Call l ar) c m)) (S n1) out Hsh I1) as [j Hj];
      auto.
    exists (j + S n1)%nat. rewrite Hj.
    rewrite (call_step P' n1 (rebind le ar fr) l [] d' (combine (vars (dctx d)) ws')); auto.
    rewrite Hctx, rebind_snd by auto. apply bind_combine; auto.
  Qed.
  Lemma lin_invoke_form : forall f vr tag t (ar : ctx) c m,
    (forall x, In x (ids ar) -> x <= m) -> idn vr <= m ->
    exists fr, same_shape ar fr /\
      (fst (lin (S f) (Invoke vr tag t ar) c m) =
         Substitute (combine (fr ++ [mkb vr Cns t]) (vars (ar ++ [mkb vr Cns t]))) (Invoke vr tag t []) \/
       (fst (lin (S f) (Invoke vr tag t ar) c m) = Invoke vr tag t [] /\ c = ar ++ [mkb vr Cns t] /\
        fr ++ [mkb vr Cns t] = ar ++ [mkb vr Cns t])).
  Proof.
    intros f vr tag t ar c m Hb Hv. rewrite lin_invoke.
    destruct (ctx_eqb c (ar ++ [mkb vr Cns t])) eqn:Eq.
    - exists ar. split; [apply same_shape_refl|]. right. apply ctx_eqb_eq in Eq. auto.
    - destruct (freshen ar [idn vr] m) as [fr m1] eqn:Ef.
      destruct (freshen_positions _ _ _ _ _ Ef) as [F2 _]. exists fr. split; auto.
  Qed.

  (* a method body: parameters bound to related values in front of related closure environments *)
  Lemma erel_method : forall rho (ccl : ctx) body (ws ws' : list value) ne_c le_c F,
    untouched rho (ids ccl) -> Forall2 vrel ws ws' -> length (vars ccl) = length ws ->
    (forall x, In x (fv body) -> ~ In x (ids ccl) -> In x F) ->
    erel rho F ne_c le_c ->
    erel rho (fv body) (combine (vars ccl) ws ++ ne_c) (combine (vars ccl) ws' ++ le_c).
  Proof.
    intros rho ccl body ws ws' ne_c le_c F Hu Hws Hlen HF He x Hx.
    assert (Hlen' : length (vars ccl) = length ws') by (rewrite Hlen; eapply F2_length; eauto).
    destruct (in_dec N.eq_dec x (ids ccl)) as [Hin|Hnin].
    - rewrite (untouched_sub_n rho (ids ccl)) by auto.
      destruct (lookup_combine_F2 vrel (vars ccl) ws ws' x Hws Hlen) as [w [w' [L1 [L2 V]]]].
      { rewrite ids_vars. auto. }
      exists w, w'. rewrite !lookup_app, L1, L2. auto.
    - destruct (He x (HF x Hx Hnin)) as [w [w' [L1 [L2 V]]]].
      exists w, w'. split; [|split; auto].
      + rewrite lookup_app, lookup_combine_notin; auto.
      + rewrite lookup_app, lookup_combine_notin; auto. now apply sub_n_untouched_notin.
  Qed.

  Lemma sim_invoke : forall n, sim_n n -> forall rho c v tag t args s' ne le out o,
    srel rho c (Invoke v tag t args) s' -> map fst le = vars c -> erel rho (fv (Invoke v tag t args)) ne le ->
    exec_named (S n) P ne (Invoke v tag t args) out = o -> good o -> exists n', exec_linear n' P' le s' out = o.
  Proof.
    intros n IH rho c v tag t args s' ne le out o Hs Hsh He Hrun Hg.
    apply srel_fuel in Hs. destruct Hs as [f [m [Hsz [Hns [Hu [Hax [Hinv ->]]]]]]].
    simpl sub_s in *. simpl in Hax.
    assert (I1 : NoDup (ids c)) by apply Hinv.
    assert (I4 : forall x, In x (ids c) -> x <= m) by apply Hinv.
    set (ar := map (sub_b rho) args) in *. set (vr := sub_id rho v) in *.
    apply andb_true_iff in Hax. destruct Hax as [Hax Hargs].
    apply andb_true_iff in Hax. destruct Hax as [Hv Hok].
    assert (Har : forall b, In b ar -> In (idn (bvar b)) (ids c)) by (apply has_b_sub_ids; auto).
    assert (Hvc : In (idn vr) (ids c)) by (eapply has_In_ids; eauto).
    destruct (lin_invoke_form f vr tag t ar c m) as [fr [Hshape Hform]]; auto.
    { intros x Hx. apply In_ids_ex in Hx. destruct Hx as [b [B1 B2]]. subst. auto. }
    (* named step *)
    simpl in Hrun. unfold lookup_id in Hrun.
    destruct (He (idn v)) as [w [w' [L1 [L2 V]]]]; [simpl; apply add_In; auto|].
    rewrite L1 in Hrun.
    destruct w as [z|ty0 tg0 fs0|ty0 cls ne_c]; try (subst; exfalso; eapply finish_stuck_not_good; eauto; fail).
    destruct (find_clause cls tag) as [cl|] eqn:Ef; [|subst; exfalso; eapply finish_stuck_not_good; eauto].
    destruct (lookups ne (vars args)) as [ws|] eqn:Ew; [|subst; exfalso; eapply finish_stuck_not_good; eauto].
    destruct (bind (vars (cl_ctx cl)) ws) as [e1|] eqn:Eb; [|subst; exfalso; eapply finish_stuck_not_good; eauto].
    apply bind_Some_length in Eb. destruct Eb as [Hlen ->].
    inversion V as [| |ty1 cls1 cls' ne1 le_c rhoc cc Hshc Hcls Hec]; subst ty1 cls1 ne1 w'.
    destruct (find_clause_F2 _ cls cls' tag cl Hcls Ef) as [cl' [Ef' [[Hctx [Hucl Hsrel]] Hin]]].
    assert (Hws : Forall2 vrel ws (map (fun b => getv le (idn (bvar b))) ar)).
    { eapply args_vrel; eauto. intros b Hb. simpl. apply add_In. right. apply union_In. left. apply In_ids; auto. }
    set (ws' := map (fun b => getv le (idn (bvar b))) ar) in *.
    assert (Hlen' : length (vars (cl_ctx cl)) = length ws') by (rewrite Hlen; eapply F2_length; eauto).
    destruct (IH rhoc (cl_ctx cl ++ cc) (cl_body cl) (cl_body cl')
                 (combine (vars (cl_ctx cl)) ws ++ ne_c) (combine (vars (cl_ctx cl)) ws' ++ le_c) out o) as [n1 Hn1]; auto.
    { rewrite map_app, combine_map_fst, vars_app by auto. rewrite Hshc. auto. }
    { apply erel_method with (F := fv_clauses cls); auto.
      intros x Hx Hnx. apply fv_clauses_In. exists cl; auto. }
    assert (Hfrlen : length fr = length ar) by (symmetry; apply same_shape_length; auto).
    destruct (wrap_exec P' c le (fr ++ [mkb vr Cns t]) (ar ++ [mkb vr Cns t]) (Invoke vr tag t [])
                        (fst (lin (S f) (Invoke vr tag t ar) c m)) (S n1) out Hsh I1) as [j Hj];
      [rewrite !app_length; simpl; lia| |exact Hform|].
    { intros b Hb. apply in_app_or in Hb. destruct Hb as [Hb|[<-|[]]]; auto. }
    exists (j + S n1)%nat. rewrite Hj. rewrite rebind_app by auto.
    assert (Eone : rebind le [mkb vr Cns t] [mkb vr Cns t] = [(vr, VClo ty0 cls' le_c)]).
    { unfold rebind; simpl. unfold vr at 2. rewrite sub_id_n, (getv_Some _ _ _ L2). auto. }
    rewrite Eone.
    rewrite (invoke_step P' n1 (rebind le ar fr) vr vr ty0 t tag cls' le_c cl' (combine (vars (cl_ctx cl)) ws')); auto.
    rewrite Hctx, rebind_snd by auto. apply bind_combine; auto.
  Qed.
  Lemma Forall2_impl_In : forall {A B} (R Q : A -> B -> Prop) l l',
    (forall a b, In a l -> R a b -> Q a b) -> Forall2 R l l' -> Forall2 Q l l'.
  Proof.
    intros A B R Q l l' H F; induction F as [|a b l l' Hab F IH]; constructor.
    - apply H; simpl; auto.
    - apply IH. intros a0 b0 Hin. apply H. simpl; auto.
  Qed.

  Lemma ren_lookup_pos : forall cn cnf, same_shape cn cnf -> NoDup (ids cn) ->
    forall b, In b cn ->
    exists b', In (b', b) (combine cnf cn) /\
               sub_n (combine (ids cn) (vars cnf)) (idn (bvar b)) = idn (bvar b').
  Proof.
    intros cn cnf H; induction H as [|x y cn cnf [K1 [K2 K3]] H IH]; intros Hnd b Hb; simpl in *; [tauto|].
    inversion Hnd as [|? ? Hn Hnd']; subst.
    destruct Hb as [<-|Hb].
    - exists y. split; auto. unfold sub_n; simpl. rewrite N.eqb_refl. simpl. auto.
    - destruct (IH Hnd' b Hb) as [b' [B1 B2]]. exists b'. split; auto.
      unfold sub_n in *; simpl.
      destruct (N.eqb (idn (bvar x)) (idn (bvar b))) eqn:E; auto.
      apply N.eqb_eq in E. exfalso. apply Hn. rewrite E. apply In_ids; auto.
  Qed.

  Lemma lin_cls_mono : forall (L : stmt -> ctx -> N -> stmt * N) mk cls m,
    (forall cl m0, In cl cls -> m <= m0 -> m0 <= snd (L (cl_body cl) (mk (cl_ctx cl)) m0)) ->
    m <= snd (lin_cls L mk cls m).
  Proof.
    intros L mk cls m H. apply (lin_cls_spec L mk (fun _ _ _ => True)); [auto|intros; split; auto].
  Qed.

  Lemma lin_create_eq : forall f v t e clsr nr c m,
    lin (S f) (Create v t e clsr nr) c m =
    let cn := filter_by_set c (fv nr) in
    let cc := cr_env c nr clsr in
    let '(cls', m1) := lin_cls (lin f) (fun x => x ++ cc) clsr m in
    if ctx_eqb c (cn ++ cc) then
      let '(n', m2) := lin f nr (cn ++ [mkb v Cns t]) m1 in (Create v t (Some cc) cls' n', m2)
    else
      let '(cnf, m2) := freshen cn (ids cc) m1 in
      let '(n', m3) := lin f (sub_s (combine (ids cn) (vars cnf)) nr) (cnf ++ [mkb v Cns t]) m2 in
      (Substitute (combine (cnf ++ cc) (vars (cn ++ cc))) (Create v t (Some cc) cls' n'), m3).
  Proof. reflexivity. Qed.

  Lemma sim_create : forall n, sim_n n -> forall rho c v t e cls next s' ne le out o,
    srel rho c (Create v t e cls next) s' -> map fst le = vars c ->
    erel rho (fv (Create v t e cls next)) ne le ->
    exec_named (S n) P ne (Create v t e cls next) out = o -> good o ->
    exists n', exec_linear n' P' le s' out = o.
  Proof.
    intros n IH rho c v t e cls next s' ne le out o Hs Hsh He Hrun Hg.
    apply srel_fuel in Hs. destruct Hs as [f [m [Hsz [Hns [Hu [Hax [Hinv ->]]]]]]].
    rewrite sub_s_create in *.
    set (er := option_map (map (sub_b rho)) e) in *.
    set (clsr := map (fun c0 => (cl_xtor c0, cl_ctx c0, sub_s rho (cl_body c0))) cls) in *.
    set (nr := sub_s rho next) in *.
    rewrite size_create in Hsz. rewrite has_subst_create in Hns. rewrite binders_create in Hu.
    rewrite ax_check_create in Hax.
    apply orb_false_iff in Hns. destruct Hns as [Hnsc Hnsn].
    assert (I1 : NoDup (ids c)) by apply Hinv.
    assert (I4 : forall x, In x (ids c) -> x <= m) by apply Hinv.
    apply andb_true_iff in Hax. destruct Hax as [Hax Hn].
    apply andb_true_iff in Hax. destruct Hax as [Hok Hcl].
    rewrite lin_create_eq. cbv zeta.
    set (cn := filter_by_set c (fv nr)). set (cc := cr_env c nr clsr). set (vb := mkb v Cns t).
    destruct (cr_env_facts c nr clsr I1) as [Hcc [Hcc_in [Hcc_ids [Hcc_look Hcc_mem]]]]. fold cc in Hcc, Hcc_in, Hcc_ids, Hcc_look, Hcc_mem.
    assert (Hcn : NoDup (ids cn)) by (apply fbs_NoDup; auto).
    (* the clauses *)
    assert (Hmono : forall cl m0, In cl cls -> m <= m0 ->
                   m0 <= snd (lin f (sub_s rho (cl_body cl)) (cl_ctx cl ++ cc) m0)).
    { intros cl m0 Hin Hm0.
      assert (Hclr : In (cl_xtor cl, cl_ctx cl, sub_s rho (cl_body cl)) clsr).
      { unfold clsr. apply in_map_iff. exists cl; auto. }
      destruct (create_clause_ok _ c v t er clsr nr m _ m0 Hinv Hcl Hclr Hm0) as [K1 K2]. cl_simpl. fold cc in K1, K2.
      destruct (lin_good Sg f (sub_s rho (cl_body cl)) (cl_ctx cl ++ cc) m0) as [_ [G _]]; auto.
      rewrite size_sub. apply size_cls_In in Hin. lia. }
    assert (H2' := lin_cls_map_spec (lin f) (fun x => x ++ cc) (sub_s rho) cls m Hmono). fold clsr in H2'.
    assert (Hm1 : m <= snd (lin_cls (lin f) (fun x => x ++ cc) clsr m)).
    { apply lin_cls_mono. intros clr m0 Hin Hm0. unfold clsr in Hin. apply in_map_iff in Hin.
      destruct Hin as [cl [<- Hin]]. cl_simpl. auto. }
    destruct (lin_cls (lin f) (fun x => x ++ cc) clsr m) as [cls' m1] eqn:Ec. cbn [fst snd] in H2', Hm1.
    (* the named step *)
    simpl in Hrun.
    destruct (ty_name t) as [tn|] eqn:Et; [|subst; exfalso; eapply finish_stuck_not_good; eauto].
    destruct t as [|tn0]; simpl in Et; try discriminate. inversion Et; subst tn0.
    (* the closure built on both sides *)
    set (cap := rebind le cc cc).
    assert (Vclo : vrel (VClo tn cls ne) (VClo tn cls' cap)).
    { apply VR_clo with (rho := rho) (cc := cc).
      - unfold cap. apply rebind_fst; auto.
      - eapply Forall2_impl_In; [|exact H2']. intros cl cl' Hin [A1 [A2 [m0 [A3 A4]]]].
        assert (Hclr : In (cl_xtor cl, cl_ctx cl, sub_s rho (cl_body cl)) clsr).
        { unfold clsr. apply in_map_iff. exists cl; auto. }
        destruct (create_clause_ok _ c v (Decl tn) er clsr nr m _ m0 Hinv Hcl Hclr A3) as [K1 K2]. cl_simpl. fold cc in K1, K2.
        split; auto. split; auto. split.
        + intros y Hy. apply Hu. right. apply in_or_app. left. eapply binders_cls_In; eauto. apply in_or_app; auto.
        + apply srel_intro with (f := f) (m := m0); auto.
          * apply size_cls_In in Hin. lia.
          * apply (existsb_false_In (fun c0 => has_subst (cl_body c0)) cls cl Hnsc Hin).
          * intros y Hy. apply Hu. right. apply in_or_app. left. eapply binders_cls_In; eauto. apply in_or_app; auto.
      - intros x Hx. destruct (He x) as [w [w' [L1 [L2 V]]]]; [rewrite fv_create; apply union_In; auto|].
        exists w, w'. split; auto. split; auto. unfold cap. rewrite rebind_self_lookup0; auto.
        + rewrite (getv_Some _ _ _ L2). auto.
        + apply Hcc_mem.
          * eapply lookup_in_ctx; eauto.
          * apply fv_clauses_In in Hx. destruct Hx as [cl [C1 [C2 C3]]].
            apply (fv_clauses_sub rho cls cl x C1); [| |exact C2|exact C3].
            -- apply (existsb_false_In (fun c0 => has_subst (cl_body c0)) cls cl Hnsc C1).
            -- intros y Hy. apply Hu. right. apply in_or_app. left. eapply binders_cls_In; eauto. }
    assert (Hfvn : forall x, In x (fv next) -> x <> idn v -> In x (fv (Create v (Decl tn) e cls next)) /\ In (sub_n rho x) (fv nr)).
    { intros x Hx Hne. split.
      - rewrite fv_create. apply union_In. right. apply remove_In; auto.
      - apply fv_sub; auto. intros y Hy. apply Hu. right. apply in_or_app; auto. }
    destruct (ctx_eqb c (cn ++ cc)) eqn:Eq.
    - (* the context is already right *)
      destruct (snoc_ok Sg c (Create v (Decl tn) er clsr nr) m (fv nr) vb nr (binders_cls clsr) Hinv)
        as [Hax' [Hinv' [Hnd' [_ Iv]]]]; auto.
      { rewrite binders_create. auto. }
      fold cn in Hax', Hinv', Hnd'.
      destruct (lin f nr (cn ++ [vb]) m1) as [n' m2] eqn:En. cbn [fst].
      set (le0 := rebind le cn cn).
      destruct (IH rho (cn ++ [vb]) next n' ((v, VClo tn cls ne) :: ne) (le0 ++ [(v, VClo tn cls' cap)]) out o)
        as [n1 Hn1]; auto.
      { apply srel_intro with (f := f) (m := m1); [lia|auto| |exact Hax'| |fold nr; rewrite En; auto].
        - intros y Hy. apply Hu. right. apply in_or_app; auto.
        - apply Hinv'. auto. }
      { unfold le0. apply shape_snoc_k. }
      { unfold le0, cn. eapply erel_snoc; eauto. intros y [<-|[]]. apply Hu. simpl; auto. }
      apply ctx_eqb_eq in Eq.
      destruct (wrap_exec P' c le (cn ++ cc) (cn ++ cc) (Create v (Decl tn) (Some cc) cls' n')
                          (Create v (Decl tn) (Some cc) cls' n') (S n1) out Hsh I1) as [j Hj]; auto.
      { intros b Hb. apply In_ids. rewrite Eq. auto. }
      exists (j + S n1)%nat. rewrite Hj. rewrite rebind_app by auto. fold le0 cap.
      rewrite create_step; auto. unfold cap. apply rebind_fst; auto.
    - (* rearrangement and renaming of next *)
      destruct (freshen cn (ids cc) m1) as [cnf m2] eqn:Ef.
      destruct (create_else_ok _ c v (Decl tn) er clsr nr m m1 cnf m2 Hinv Hn Hm1 Ef)
        as [F2 [F3 [Hv_cnf [Hm2 [Hax' [Hinv' [Hun Hdis]]]]]]].
      fold cn in F2, Hax', Hinv', Hun. fold vb in Hax', Hinv'.
      set (su := combine (ids cn) (vars cnf)) in *.
      destruct (lin f (sub_s su nr) (cnf ++ [vb]) m2) as [n' m3] eqn:En. cbn [fst].
      set (rho' := compose su rho).
      assert (Hcomp : sub_s su nr = sub_s rho' next) by (unfold nr, rho'; apply sub_s_compose; auto).
      assert (Hlen : length cnf = length cn) by (symmetry; apply same_shape_length; auto).
      set (le0 := rebind le cn cnf).
      assert (Hur : untouched rho' (idn v :: binders next)).
      { intros y Hy. unfold rho'. rewrite compose_dom. split.
        - intros Hin. apply in_app_or in Hin. destruct Hin as [Hin|Hin].
          + destruct (Hu y) as [U1 _]; [destruct Hy as [<-|Hy]; [simpl; auto|right; apply in_or_app; auto]|]. auto.
          + destruct (Hun y) as [U1 _]; [unfold nr; rewrite binders_sub by auto; auto|]. auto.
        - intros Hin. apply compose_range in Hin. destruct Hin as [Hin|Hin].
          + destruct (Hu y) as [_ U2]; [destruct Hy as [<-|Hy]; [simpl; auto|right; apply in_or_app; auto]|]. auto.
          + destruct (Hun y) as [_ U2]; [unfold nr; rewrite binders_sub by auto; auto|]. auto. }
      destruct (IH rho' (cnf ++ [vb]) next n' ((v, VClo tn cls ne) :: ne) (le0 ++ [(v, VClo tn cls' cap)]) out o)
        as [n1 Hn1]; auto.
      { apply srel_intro with (f := f) (m := m2); [lia|auto| | | |].
        - intros y Hy. apply Hur. simpl; auto.
        - rewrite <- Hcomp. auto.
        - rewrite <- Hcomp. auto.
        - rewrite <- Hcomp, En. auto. }
      { unfold le0. rewrite map_app, rebind_fst, vars_app by auto. auto. }
      { intros x Hx. destruct (N.eq_dec x (idn v)) as [->|Hne].
        - exists (VClo tn cls ne), (VClo tn cls' cap). simpl. rewrite N.eqb_refl.
          rewrite (untouched_sub_n rho' (idn v :: binders next)) by (auto; simpl; auto).
          unfold le0. rewrite rebind_notin; auto. simpl. rewrite N.eqb_refl. auto.
        - destruct (Hfvn x Hx Hne) as [H1 H2]. destruct (He x H1) as [w [w' [L1 [L2 V]]]].
          exists w, w'. simpl. apply N.eqb_neq in Hne. rewrite N.eqb_sym in Hne. rewrite Hne.
          split; auto. split; auto.
          assert (Hxc : In (sub_n rho x) (ids cn)).
          { apply fbs_ids_In. split; [eapply lookup_in_ctx; eauto|auto]. }
          apply In_ids_ex in Hxc. destruct Hxc as [b [B1 B2]].
          destruct (ren_lookup_pos cn cnf F2 Hcn b B1) as [b' [P1 P2]].
          fold su in P2. unfold rho'. rewrite sub_n_compose, <- B2, P2.
          unfold le0. rewrite (rebind_lookup le cnf cn _ b' b); auto.
          rewrite B2, (getv_Some _ _ _ L2). auto. }
      destruct (wrap_exec P' c le (cnf ++ cc) (cn ++ cc) (Create v (Decl tn) (Some cc) cls' n')
                          (Substitute (combine (cnf ++ cc) (vars (cn ++ cc))) (Create v (Decl tn) (Some cc) cls' n'))
                          (S n1) out Hsh I1) as [j Hj]; auto.
      { rewrite !app_length. lia. }
      { intros b Hb. apply In_ids. apply in_app_or in Hb. destruct Hb as [Hb|Hb]; auto.
        apply fbs_In in Hb. tauto. }
      exists (j + S n1)%nat. rewrite Hj. rewrite rebind_app by auto. fold le0 cap.
      rewrite create_step; auto. unfold cap. apply rebind_fst; auto.
  Qed.
  Theorem sim_all : forall n, sim_n n.
  Proof.
    induction n as [|n IH]; intros rho c s s' ne le out o Hs Hsh He Hrun Hg.
    - simpl in Hrun. subst. exfalso. eapply finish_fuel_not_good; eauto.
    - destruct s.
      + destruct Hs as [f [m [_ [Hns _]]]]. discriminate.
      + eapply sim_call; eauto.
      + eapply sim_let; eauto.
      + eapply sim_switch; eauto.
      + eapply sim_create; eauto.
      + eapply sim_invoke; eauto.
      + eapply sim_literal; eauto.
      + eapply sim_op; eauto.
      + eapply sim_print; eauto.
      + eapply sim_ifc; eauto.
      + eapply sim_exit; eauto.
  Qed.

  Lemma vrel_ints : forall zs, Forall2 vrel (map VInt zs) (map VInt zs).
  Proof. induction zs; simpl; constructor; auto. constructor. Qed.

  Theorem run_sim : forall args n o,
    run_named n P args = o -> good o -> exists n', run_linear n' P' args = o.
  Proof.
    intros args n o Hrun Hg. unfold run_named in Hrun. unfold run_linear.
    destruct (pdefs P) as [|d r] eqn:Ed.
    { subst. exfalso. destruct Hg as [[z H]|[z H]]; simpl in H; discriminate. }
    assert (Hok : def_ok Sg (pmax P) d = true).
    { apply (prog_ok_defs P HP). rewrite Ed. simpl; auto. }
    unfold linearize. rewrite Ed. simpl.
    unfold lin_def.
    destruct (lin (stmt_size (dbody d)) (dbody d) (dctx d) (pmax P)) as [b m1] eqn:E.
    destruct (lin_defs r m1) as [r' m2] eqn:E'. simpl.
    unfold entry_env in *. simpl.
    destruct (bind (vars (dctx d)) (map VInt args)) as [e|] eqn:Eb.
    2:{ subst. exfalso. destruct Hg as [[z H]|[z H]]; simpl in H; discriminate. }
    apply bind_Some_length in Eb. destruct Eb as [Hlen ->].
    pose proof (def_ok_inv _ _ _ Hok) as [Haxd _].
    destruct (sim_all n [] (dctx d) (dbody d) b (combine (vars (dctx d)) (map VInt args))
                      (combine (vars (dctx d)) (map VInt args)) [] o) as [n' Hn']; auto.
    - apply (srel_def d (mkd (dname d) (dctx d) b) (pmax P)); auto. simpl. rewrite E. auto.
    - apply combine_map_fst; auto.
    - apply erel_params; auto.
      + apply vrel_ints.
      + intros x Hx. eapply ax_check_fv; eauto.
    - exists n'. unfold linearize in Hn'. rewrite Ed in Hn'. simpl in Hn'. unfold lin_def in Hn'.
      rewrite E, E' in Hn'. simpl in Hn'. exact Hn'.
  Qed.
End Sim.

(* C05, semantic preservation: every run of the named machine on a program satisfying `prog_ok`
   that ends normally (exit) or in undefined arithmetic is reproduced, observation for
   observation, by the linear machine on the linearized program. *)
Theorem linearize_preserves : forall p, prog_ok p = true ->
  forall args n o, run_named n p args = o -> good o ->
  exists n', run_linear n' (linearize p) args = o.
Proof. intros p H args n o. apply run_sim; auto. Qed.

(* more fuel does not change a finished run of the linear machine *)
Lemma finish_not_fuel : forall out oc, oc <> OOutOfFuel -> snd (finish out oc) <> OOutOfFuel.
Proof. intros; simpl; auto. Qed.

Lemma exec_linear_mono : forall p n e s out o,
  exec_linear n p e s out = o -> snd o <> OOutOfFuel -> forall k, exec_linear (n + k) p e s out = o.
Proof.
  intros p; induction n as [|n IH]; intros e s out o H Hne k.
  - simpl in H. subst. simpl in Hne. congruence.
  - change (S n + k)%nat with (S (n + k)).
    destruct s; simpl in H |- *;
      repeat match goal with
             | |- context [match ?x with _ => _ end] =>
                 match type of H with context [match x with _ => _ end] => destruct x end
             end; auto.
Qed.

Theorem linearize_preserves_stable : forall p, prog_ok p = true ->
  forall args n o, run_named n p args = o -> good o ->
  exists n', forall k, run_linear (n' + k) (linearize p) args = o.
Proof.
  intros p H args n o Hrun Hg. destruct (linearize_preserves p H args n o Hrun Hg) as [n' Hn'].
  exists n'. intros k. unfold run_linear in *.
  destruct (pdefs (linearize p)) as [|d r]; auto.
  destruct (entry_env d args); auto.
  apply exec_linear_mono; auto.
  destruct Hg as [[z Hz]|[w Hw]]; congruence.
Qed.
