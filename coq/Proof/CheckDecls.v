(* C15, declarations (since fix eb42971 of /repo): Data::check / Codata::check establish EXACTLY the
   declaration part of the typing rules.
     Ty::check_template (model [ty_check_template]) succeeds on a type written in a declaration with
     parameters ps  iff  [wf_tty ts ps] holds of it: i64, a parameter WITHOUT arguments, or a declared
     type applied to as many well-formed types as it has parameters - provided no parameter of the
     declaration is the name of a declared type (check_type_params, run by build_symbol_table).
     Hence  check_type_decls (fpdecls p) st = COk tt  <->  decl_types_wf (tdecls (fpdecls p)) = true.
   No instance is created (the functions do not return a symbol table), so non-regular recursive
   declarations are handled (example [nest_accepted]).  For all programs, no fragment. *)
From Coq Require Import List ZArith String Bool Lia.
From SCC Require Import Base.Sexp Lang.SynUtil Lang.FunSyn Model.Check Sem.FunTyping Sem.FunNames
  Proof.FunEq Proof.CheckAnn Proof.TypingReject Proof.CheckBuild Proof.PrintInj.
Import ListNotations.
Open Scope list_scope.

Fixpoint tys_check_template (st : symtab) (ps : fnamectx) (l : list fty) : cres unit :=
  match l with
  | [] => COk tt
  | a :: r => doc _ <- ty_check_template st ps a; tys_check_template st ps r
  end.
Lemma ty_check_template_decl : forall st ps n targs,
  ty_check_template st ps (FDecl n targs) =
  match template_arity st ps n with
  | None => CErr EUndefined
  | Some expected =>
      if negb (Nat.eqb (List.length targs) expected) then CErr EWrongNumberOfTypeArguments
      else tys_check_template st ps targs
  end.
Proof.
  intros st ps n targs. simpl. destruct (template_arity st ps n) as [e|]; [|reflexivity].
  destruct (negb (Nat.eqb (List.length targs) e)); [reflexivity|].
  induction targs as [|a r IH]; [reflexivity|]. simpl.
  destruct (ty_check_template st ps a); simpl; [assumption|reflexivity].
Qed.
Lemma cbind_tt_iff : forall (a b : cres unit), (doc _ <- a; b) = COk tt <-> a = COk tt /\ b = COk tt.
Proof.
  intros a b. split.
  - intro H. apply cbind_ok in H. destruct H as [[] [H1 H2]]. auto.
  - intros [H1 H2]. rewrite H1. exact H2.
Qed.
Lemma cres_unit_ok : forall (r : cres unit), (exists u, r = COk u) -> r = COk tt.
Proof. intros r [[] H]. exact H. Qed.

Section Decls.
  Variable ts : list tdecl.
  Variable fs : list fdef.
  Variable st : symtab.
  Hypothesis Tb : tables ts fs st.

  Definition params_fresh (ps : list fname) : Prop :=
    forallb (fun p => negb (is_some (find_type ts p))) ps = true.

  Lemma mem_name_mem : forall x l, mem_name x l = mem x l.
  Proof. reflexivity. Qed.

  (* the number of arguments the head of a declaration type takes *)
  Lemma template_arity_spec : forall ps n, params_fresh ps ->
    template_arity st ps n =
    if mem n ps then Some 0%nat else option_map (fun td => List.length (td_params td)) (find_type ts n).
  Proof.
    intros ps n Hf. unfold template_arity. rewrite (t_tt _ _ _ Tb), mem_name_mem.
    destruct (mem n ps) eqn:Em.
    - unfold params_fresh in Hf. rewrite forallb_forall in Hf. apply mem_In in Em. specialize (Hf _ Em).
      destruct (find_type ts n); [discriminate|reflexivity].
    - destruct (find_type ts n) as [td|]; reflexivity.
  Qed.

  Lemma tys_check_template_iff : forall ps l,
    Forall (fun a => ty_check_template st ps a = COk tt <-> wf_tty ts ps a = true) l ->
    (tys_check_template st ps l = COk tt <-> forallb (wf_tty ts ps) l = true).
  Proof.
    intros ps l H. induction H as [|a r Ha Hr IH]; simpl; [tauto|].
    rewrite andb_true_iff, <- Ha, <- IH. apply cbind_tt_iff.
  Qed.

  Theorem ty_check_template_iff : forall ps, params_fresh ps ->
    forall t, ty_check_template st ps t = COk tt <-> wf_tty ts ps t = true.
  Proof.
    intros ps Hf. induction t using fty_ind'; [simpl; tauto|].
    rewrite ty_check_template_decl, (template_arity_spec _ _ Hf).
    pose proof (tys_check_template_iff ps args H) as Hargs. clear H.
    simpl wf_tty. destruct (mem n ps) eqn:Em.
    - destruct args as [|a r]; simpl; [tauto|]. split; discriminate.
    - destruct (find_type ts n) as [td|]; simpl; [|split; discriminate].
      destruct (Nat.eqb (List.length args) (List.length (td_params td))); simpl; [exact Hargs|split; discriminate].
  Qed.

  Lemma ctx_check_template_iff : forall ps, params_fresh ps -> forall c,
    ctx_check_template st ps c = COk tt <-> forallb (fun b => wf_tty ts ps (fbty b)) c = true.
  Proof.
    intros ps Hf. induction c as [|b r IH]; simpl; [tauto|].
    rewrite andb_true_iff, <- (ty_check_template_iff ps Hf), <- IH. apply cbind_tt_iff.
  Qed.

  Lemma data_check_iff : forall ps, params_fresh ps -> forall cs,
    data_check st ps cs = COk tt
    <-> forallb (xsig_ok ts ps) (map (fun c => mkxsig (fctname c) (fctargs c) None) cs) = true.
  Proof.
    intros ps Hf. induction cs as [|c r IH]; simpl; [tauto|].
    rewrite andb_true_iff, <- IH. unfold xsig_ok at 1. simpl. rewrite andb_true_r, <- (ctx_check_template_iff ps Hf). apply cbind_tt_iff.
  Qed.
  Lemma codata_check_iff : forall ps, params_fresh ps -> forall ds,
    codata_check st ps ds = COk tt
    <-> forallb (xsig_ok ts ps) (map (fun c => mkxsig (fdtname c) (fdtargs c) (Some (fdtcont c))) ds) = true.
  Proof.
    intros ps Hf. induction ds as [|d r IH]; simpl; [tauto|].
    rewrite andb_true_iff, <- IH. unfold xsig_ok at 1. simpl.
    rewrite andb_true_iff, <- (ctx_check_template_iff ps Hf), <- (ty_check_template_iff ps Hf). rewrite !cbind_tt_iff. tauto.
  Qed.

  Theorem check_type_decls_iff : forall ds,
    (forall td, In td (tdecls ds) -> params_fresh (td_params td)) ->
    (check_type_decls ds st = COk tt
     <-> forallb (fun t => forallb (xsig_ok ts (td_params t)) (td_xtors t)) (tdecls ds) = true).
  Proof.
    induction ds as [|d r IH]; intros Hp; [simpl; tauto|].
    destruct d as [d|d|d]; simpl in *.
    - rewrite andb_true_iff, <- IH by (intros; apply Hp; right; assumption).
      rewrite <- (data_check_iff _ (Hp _ (or_introl eq_refl))). simpl. apply cbind_tt_iff.
    - rewrite andb_true_iff, <- IH by (intros; apply Hp; right; assumption).
      rewrite <- (codata_check_iff _ (Hp _ (or_introl eq_refl))). simpl. apply cbind_tt_iff.
    - apply IH. exact Hp.
  Qed.
End Decls.

Lemma check_type_decls_ok : forall ts fs st ds,
  tables ts fs st ->
  (forall td, In td (tdecls ds) -> forallb (fun p => negb (is_some (find_type ts p))) (td_params td) = true) ->
  check_type_decls ds st = COk tt ->
  forall td, In td (tdecls ds) -> forallb (xsig_ok ts (td_params td)) (td_xtors td) = true.
Proof.
  intros ts fs st ds Tb Hp H td Hin.
  apply (check_type_decls_iff ts fs st Tb ds Hp) in H. rewrite forallb_forall in H. exact (H td Hin).
Qed.
Lemma check_type_decls_ok_conv : forall ts fs st ds,
  tables ts fs st ->
  (forall td, In td (tdecls ds) -> forallb (fun p => negb (is_some (find_type ts p))) (td_params td) = true) ->
  (forall td, In td (tdecls ds) -> forallb (xsig_ok ts (td_params td)) (td_xtors td) = true) ->
  check_type_decls ds st = COk tt.
Proof.
  intros ts fs st ds Tb Hp H. apply (check_type_decls_iff ts fs st Tb ds Hp). apply forallb_forall. exact H.
Qed.

(* every accepted program has well-formed declaration types, so soundness needs no guard on them *)
Theorem check_gen_decl_types_wf : forall eager p q,
  check_gen eager p = COk q -> decl_types_wf (tdecls (fpdecls p)) = true.
Proof.
  intros eager p q H. apply run_check in H. destruct H as (st & defs & st1 & das & cos & Hb & Hdecls & _).
  destruct (build_symbol_table_spec p st Hb) as [Tb [_ [_ [_ [_ Hps]]]]].
  unfold decl_types_wf.
  apply (check_type_decls_iff _ _ st Tb (fpdecls p)); [|exact Hdecls].
  intros td Hin. exact (proj2 (Hps td Hin)).
Qed.
(* ... and conversely a program whose declaration types are ill-formed is rejected, whatever else it contains *)
Theorem check_gen_rejects_ill_formed_decl : forall eager p,
  decl_types_wf (tdecls (fpdecls p)) = false -> exists e, check_gen eager p = CErr e.
Proof.
  intros eager p H. destruct (check_gen eager p) as [q|e] eqn:E; [|eauto].
  rewrite (check_gen_decl_types_wf _ _ _ E) in H. discriminate.
Qed.

(* non-regular recursion: nothing is instantiated by the declaration check
   data Wrap[A] { W(x: A) }   data Nest[A] { Flat(x: A), Deep(n: Nest[Wrap[A]]) }
   def depth(n: Nest[i64]): i64 { n.case[i64] { Flat(x) => x, Deep(m) => 1 } }
   def main(): i64 { depth(Deep(Flat(W(5)))) }
   (instantiating the field types of every created instance would not terminate: Nest[i64] needs
   Nest[Wrap[i64]] needs Nest[Wrap[Wrap[i64]]] ...) *)
Local Open Scope string_scope.
Definition p_nest : fprog :=
  mkfprog [FDData (mkfdata "Wrap" ["A"] [mkfctor "W" [mkfb "x" FPrd (FDecl "A" [])]]);
           FDData (mkfdata "Nest" ["A"] [mkfctor "Flat" [mkfb "x" FPrd (FDecl "A" [])];
                                         mkfctor "Deep" [mkfb "n" FPrd (FDecl "Nest" [FDecl "Wrap" [FDecl "A" []]])]]);
           FDDef (mkfdef "depth" [mkfb "n" FPrd (FDecl "Nest" [FI64])] FI64
                    (FCase (FVar "n" None None) [FI64]
                       [FClause FData "Flat" ["x"] [] (FVar "x" None None); FClause FData "Deep" ["m"] [] (FLit 1)] None));
           FDDef (mkfdef "main" [] FI64
                    (FCall "depth" [FCtor "Deep" [FCtor "Flat" [FCtor "W" [FLit 5] None] None] None] None))].
Lemma nest_accepted :
  has_type_b p_nest = true /\ prog_names_ok p_nest = true
  /\ exists q, check p_nest = COk q /\ map fdaname (fcpdata q) = ["Nest[Wrap[i64]]"; "Nest[i64]"; "Wrap[i64]"].
Proof. split; [vm_compute; reflexivity|]. split; [vm_compute; reflexivity|]. eexists. split; vm_compute; reflexivity. Qed.
