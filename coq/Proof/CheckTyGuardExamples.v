(* C15 -> C12: witnesses for the theorems of Proof/CheckTyGuardProg.v.
   - the five example programs of Proof/Fun2CoreExamples.v are outputs of the checker ([src_of]: the declarations and
     definitions of a checked program as a source program; the checker reproduces the program) and satisfy all guards;
   - both extra guards of [check_tyguard] are needed:
       [p_undeclared_ret]  `data Bar { MkBar } codata Foo { get : Bar } def f(): Foo { new { get => exit 0 } } def main(): i64 { 0 }`
                           (the real `scc compile` accepts it and prints a Core program whose codata declaration Foo
                           mentions the undeclared type Bar) is well typed and accepted, the instance `Bar` is never
                           created, so neither xtor_tys_guard nor prog_tyguard hold of the output (the non-closure of the
                           checker's output, C15_output_closed_refuted, here at the return type of a destructor that IS used);
       [p_cont_type]       a data type named `_Cont` (not a name the lexer produces, but identifier-like in the sense of
                           prog_names_ok): accepted, and decls_tyguard fails. *)
From Coq Require Import List ZArith NArith String Bool.
From SCC Require Import Base.Sexp Lang.FunSyn Lang.FunTy Lang.CoreSyn Model.Check Sem.FunTyping Sem.FunNames
  Model.Fun2Core Model.Fun2CoreGuard Model.Fun2CoreTyGuard Proof.Fun2CoreExamples Proof.Fun2CoreTyChecked Proof.CheckTyGuardProg.
Import ListNotations.
Open Scope string_scope.

Definition src_of (p : fcprog) : fprog :=
  mkfprog (map FDData (fcpdata p) ++ map FDCodata (fcpcodata p) ++ map FDDef (fcpdefs p)).

Definition checked_in_guards (p : fcprog) : Prop :=
  prog_names_ok (src_of p) = true /\ no_cont_decl (src_of p) = true /\ check (src_of p) = COk p /\ xtor_tys_guard p = true.

Lemma examples_checked_in_guards :
  checked_in_guards ex_calls /\ checked_in_guards ex_shared /\ checked_in_guards ex_data
  /\ checked_in_guards ex_labels /\ checked_in_guards ex_codata.
Proof. unfold checked_in_guards. repeat match goal with |- _ /\ _ => split end; vm_compute; reflexivity. Qed.

Definition p_undeclared_ret : fprog :=
  mkfprog [FDData (mkfdata "Bar" [] [mkfctor "MkBar" []]);
           FDCodata (mkfcodata "Foo" [] [mkfdtor "get" [] (FDecl "Bar" [])]);
           FDDef (mkfdef "f" [] (FDecl "Foo" []) (FNew [FClause FCodata "get" [] [] (FExit (FLit 0%Z) None)] None));
           FDDef (mkfdef "main" [] FI64 (FLit 0%Z))].
Lemma undeclared_ret_witness :
  prog_names_ok p_undeclared_ret = true /\ no_cont_decl p_undeclared_ret = true /\ has_type_b p_undeclared_ret = true
  /\ exists q, check p_undeclared_ret = COk q /\ xtor_tys_guard q = false /\ prog_tyguard q = false.
Proof.
  do 3 (split; [vm_compute; reflexivity|]). eexists. split; [vm_compute; reflexivity|]. split; vm_compute; reflexivity.
Qed.

Definition p_cont_type : fprog :=
  mkfprog [FDData (mkfdata "_Cont" [] [mkfctor "K" []]);
           FDDef (mkfdef "main" [] FI64 (FCase (FCtor "K" [] None) [] [FClause FData "K" [] [] (FLit 0%Z)] None))].
Lemma cont_type_witness :
  prog_names_ok p_cont_type = true /\ no_cont_decl p_cont_type = false /\ has_type_b p_cont_type = true
  /\ exists q, check p_cont_type = COk q /\ xtor_tys_guard q = true /\ prog_tyguard q = false.
Proof.
  do 3 (split; [vm_compute; reflexivity|]). eexists. split; [vm_compute; reflexivity|]. split; vm_compute; reflexivity.
Qed.

Lemma tyguard_closure_guard_needed :
  ~ (forall src p, prog_names_ok src = true -> no_cont_decl src = true -> check src = COk p -> prog_tyguard p = true).
Proof.
  intros H. destruct undeclared_ret_witness as [H1 [H2 [_ [q [Hq [_ Hg]]]]]].
  rewrite (H _ _ H1 H2 Hq) in Hg. discriminate.
Qed.
Lemma tyguard_cont_guard_needed :
  ~ (forall src p, prog_names_ok src = true -> check src = COk p -> xtor_tys_guard p = true -> prog_tyguard p = true).
Proof.
  intros H. destruct cont_type_witness as [H1 [_ [_ [q [Hq [Hx Hg]]]]]].
  rewrite (H _ _ H1 Hq Hx) in Hg. discriminate.
Qed.
