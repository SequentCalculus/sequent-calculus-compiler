(* C03: the preservation statement with the shape predicates pre_check and focus_wf as its ONLY
   hypotheses (Props/C03.v, C03_focus_preserves_statement) is false: typing is needed.

   Witness (ill-typed: a covariable of type i64 is used as a consumer of the codata type T):
     codata T { }
     def main() { exit (mu a:i64. < mu b:T. (print 7; <5 | b>) | a >_T) }
   Source machine: the argument mu a (i64, by value) binds a := KRet(exit); the cut at the codata
   type T meets the consumer value KRet, which is no mu~-closure, so mu b is run: print 7, <5 | b>
   returns 5 to exit: prints [7], exit 5.
   Focused: <mu a. <mu b. ... | a> | mu~ x. exit x>; now a is the mu~-CLOSURE (x, exit x), the cut at
   the codata type gives the closure priority: x := thunk(mu b ...), exit x is stuck on a thunk.
   This is the kind clash that the preservation theorems exclude (clash_free / sg_prog). *)
From Coq Require Import List ZArith NArith String Bool Lia.
From SCC Require Import Base.Sexp Lang.CoreSyn Sem.AxSem Sem.CoreSem Model.Backend Model.Uniquify Model.Focus
     Model.FocusCheck Model.FocusGuard.
Import ListNotations.
Open Scope string_scope.
Open Scope Z_scope.

Definition tT : cty := CDecl ("T", 0%N).
Definition wit_clash : cprog :=
  mkcp [mkcd ("main", 0%N) []
          (CExit (CMu CPrd ("a", 0%N)
                    (CCut (CMu CPrd ("b", 0%N) (CPrint false (CLit 7) (CCut (CLit 5) CI64 (CXVar CCns ("b", 0%N) CI64))) tT)
                          tT (CXVar CCns ("a", 0%N) tT)) CI64) CI64)]
       [] [mkct CCodata ("T", 0%N) []] 0%N.

Definition wit_clash_q : fsprog :=
  match focus_prog wit_clash with Ok q => q | Err _ => mkfsp [] [] [] 0%N end.

Lemma crun_stable : forall fuel p c out k, snd (crun fuel p c out) <> OOutOfFuel ->
  crun (fuel + k) p c out = crun fuel p c out.
Proof.
  induction fuel as [|f IH]; intros p c out k H; simpl in *.
  - exfalso. apply H. reflexivity.
  - destruct (cstep p c); auto.
Qed.

Lemma wit_clash_facts :
  pre_check wit_clash = true /\ focus_wf wit_clash = true /\ focus_prog wit_clash = Ok wit_clash_q /\
  run_core 20 wit_clash [] = ([(false, 7)], OExit 5) /\
  clash_free_prog 20 wit_clash [] = false /\
  run_fs 20 wit_clash_q [] = ([], OStuck "exit-operand").
Proof. vm_compute. repeat split; reflexivity. Qed.

Lemma run_core_stable : forall fuel p args k, snd (run_core fuel p args) <> OOutOfFuel ->
  run_core (fuel + k) p args = run_core fuel p args.
Proof.
  intros fuel p args k H. unfold run_core in *. destruct (cpdefs p) as [|d ds]; [reflexivity|].
  destruct (centry_env d args); [apply crun_stable; exact H | reflexivity].
Qed.

Lemma wit_clash_never : forall fuel', run_fs fuel' wit_clash_q [] <> ([(false, 7)], OExit 5).
Proof.
  intros fuel'. destruct wit_clash_facts as (_ & _ & _ & _ & _ & R).
  destruct (le_lt_dec 20 fuel') as [L|L].
  - replace fuel' with (20 + (fuel' - 20))%nat by lia.
    unfold run_fs in *. rewrite run_core_stable; rewrite R; discriminate.
  - do 20 (destruct fuel' as [|fuel']; [vm_compute; discriminate|]). lia.
Qed.

Theorem focus_preserves_statement_refuted :
  ~ (forall p q args fuel, pre_check p = true -> focus_wf p = true -> focus_prog p = Ok q ->
       let o := run_core fuel p args in
       ((exists z, snd o = OExit z) \/ (exists w, snd o = OUndef w)) ->
       exists fuel', run_fs fuel' q args = o).
Proof.
  intros H. destruct wit_clash_facts as (P & W & F & R & _).
  destruct (H wit_clash wit_clash_q [] 20%nat P W F) as (fuel' & E).
  - rewrite R. left. eexists. reflexivity.
  - rewrite R in E. exact (wit_clash_never fuel' E).
Qed.
