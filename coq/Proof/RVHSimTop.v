(* C08, forward simulation for HEAP statements: the bound on the run that the program-level theorems
   (Proof/RVKSimTop.v; for the fragment `h_frag`, Proof/RVHSimCor.v) assume besides the checks of C14 on the output.
     heap_fits p args   the run stays inside the 32 MiB heap region of the ISA model (the linear machine
                        has no memory bound): in every configuration the instrumented machine reaches, the
                        allocation frontier leaves room for the reserved block. *)
From Coq Require Import List ZArith Bool.
From SCC Require Import Lang.AxSyn Sem.AxSem Sem.AxHeap Model.RV Sem.RVSem Proof.LinTyping Proof.RVSimRel.
From SCC Require Model.Heap Proof.AxHeapTyping.
Import ListNotations.
Open Scope Z_scope.

Definition heap_fits (p : prog) (args : list Z) : Prop :=
  forall tr c, hreach HEAP_BASE p args tr c -> Heap.frontier (hc_heap c) + 64 <= HEAP_BASE + HEAP_SIZE.

Lemma ctx_int_all_ext c : SimFrag.ctx_int c = true -> AxHeapTyping.all_ext c = true.
Proof.
  unfold AxHeapTyping.all_ext, SimFrag.ctx_int. rewrite !forallb_forall. intros H b Hb. specialize (H b Hb).
  unfold SimFrag.is_int_binding in H. destruct (bchi b); try discriminate. destruct (bty b); try discriminate. reflexivity.
Qed.
