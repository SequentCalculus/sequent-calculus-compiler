(* Correctness of the structural equality test [fty_eqb] of Lang/FunSyn.v. *)
From Coq Require Import List ZArith String Bool.
From SCC Require Import Lang.SynUtil Lang.FunSyn.
Import ListNotations.

Lemma fty_eqb_eq : forall a b, fty_eqb a b = true -> a = b.
Proof.
  fix IH 1. intros [|n l] [|m k]; simpl; intros H; try discriminate; [reflexivity|].
  apply andb_true_iff in H. destruct H as [Hn Hl]. apply String.eqb_eq in Hn. subst m. f_equal.
  revert k Hl. induction l as [|x l' IHl]; intros [|y k'] Hl; try discriminate; [reflexivity|].
  apply andb_true_iff in Hl. destruct Hl as [Hx Hr]. f_equal; [apply IH; assumption|apply IHl; assumption].
Qed.
Lemma fty_eqb_refl : forall a, fty_eqb a a = true.
Proof.
  fix IH 1. intros [|n l]; simpl; [reflexivity|]. rewrite String.eqb_refl. simpl.
  induction l as [|x l' IHl]; [reflexivity|]. rewrite IH, IHl. reflexivity.
Qed.
Lemma fty_eqb_iff : forall a b, fty_eqb a b = true <-> a = b.
Proof. intros a b; split; [apply fty_eqb_eq|intros ->; apply fty_eqb_refl]. Qed.
Lemma fty_eqb_neq : forall a b, fty_eqb a b = false -> a <> b.
Proof. intros a b H E. subst. rewrite fty_eqb_refl in H. discriminate. Qed.
