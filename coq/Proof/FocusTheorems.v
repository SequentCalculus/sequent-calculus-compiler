(* Property C03, binder part: the program-level theorems about uniquify and focus. *)
From Coq Require Import List ZArith NArith String Bool Lia.
From SCC Require Import Base.Sexp Lang.CoreSyn Model.Backend Model.Uniquify Model.Focus Model.FocusCheck
     Proof.CoreInd Proof.SubstProof Proof.CheckLemmas Proof.UniquifyProof Proof.FocusLemmas Proof.FocusProof
     Proof.PathLemmas.
Import ListNotations.
Open Scope list_scope.
Open Scope N_scope.

Lemma mem_le_nonzero : forall b l, mem_le b l -> mem_le b (nonzero l).
Proof. intros b l H i Hi. apply in_nonzero in Hi. apply H; tauto. Qed.

Lemma uq_def_spec : forall d T m,
  T <= m -> wf_stmt (cdbody d) = true -> pre_def T d = true ->
  exists d' m', uq_def d m = Ok (d', m') /\ m <= m' /\ wf_stmt (cdbody d') = true /\
    bspec (nonzero (binder_ids_def d)) m m' (binder_ids_def d') /\
    ids_le_def m' d' = true /\ scoped_def d' = true.
Proof.
  intros [name ctx body] T m LE W P. unfold pre_def, ids_le_def, scoped_def, binder_ids_def in *. simpl in *.
  apply andb_true_iff in P; destruct P as [P S]. apply andb_true_iff in P; destruct P as [I NDb].
  apply andb_true_iff in I; destruct I as [Ic Ib].
  apply nodupN_NoDup in NDb. rewrite nonzero_app in *.
  assert (ND' := NDb). apply NoDup_app_iff in ND'. destruct ND' as (ND1 & ND2 & _).
  assert (ML1 : mem_le T (nonzero (cids ctx))) by (apply mem_le_nonzero; apply forallb_leb; auto).
  assert (ML2 : mem_le T (nonzero (binder_ids_stmt body))) by (apply mem_le_nonzero; apply binders_le_stmt; auto).
  unfold uq_def; simpl.
  destruct (uq_context_spec ctx T m) as (ctx' & vs & cs & m1 & E & L1 & BC & Rv & Rc & SN); auto.
  rewrite E.
  assert (I1 : ids_le_stmt m1 body = true) by (eapply ids_le_stmt_mono; [|eassumption]; lia).
  assert (S1 : scoped_stmt (cids ctx' ++ []) body = true).
  { eapply scoped_stmt_mono; [|eassumption]. rewrite app_nil_r. auto. }
  assert (SB : exists b1, (if is_nil vs && is_nil cs then Ok body else subst_stmt body vs cs) = Ok b1
                          /\ sspec_stmt m1 (cids ctx' ++ []) body b1).
  { destruct (is_nil vs && is_nil cs).
    - exists body; split; auto. unfold sspec_stmt; auto.
    - apply subst_var_spec_stmt; auto; rewrite app_nil_r; auto. }
  destruct SB as (b1 & Eb1 & (Sb & Sd & Sw & Si & Ss)). rewrite Eb1; simpl.
  destruct (proj2 (proj2 (uq_spec (uq_fuel b1))) b1 T (cids ctx' ++ []) m1)
    as (b2 & m2 & E2 & L2 & W2 & B2 & I2 & S2); auto; try lia.
  { rewrite Sb; auto. } { rewrite Sb; auto. }
  rewrite E2; simpl. eexists _, _. split; [reflexivity|]. simpl.
  split; [lia|]. split; [auto|]. split; [|split].
  - rewrite Sb in B2. eapply bspec_app; eauto. apply mem_le_app; auto.
  - bsplit; auto. apply forallb_leb. eapply mem_le_mono; [|exact L2]. eapply bspec_mem_le; eauto. lia.
  - rewrite app_nil_r in S2. auto.
Qed.

Lemma ids_le_def_mono : forall b b' d, b <= b' -> ids_le_def b d = true -> ids_le_def b' d = true.
Proof.
  unfold ids_le_def; intros b b' d L H. bsplit.
  - apply forallb_leb. apply forallb_leb in H. eapply mem_le_mono; eauto.
  - eapply ids_le_stmt_mono; eauto.
Qed.
Lemma fs_ids_le_def_mono : forall b b' d, b <= b' -> fs_ids_le_def b d = true -> fs_ids_le_def b' d = true.
Proof.
  unfold fs_ids_le_def; intros b b' d L H. bsplit.
  - apply forallb_leb. apply forallb_leb in H. eapply mem_le_mono; eauto.
  - eapply fs_ids_le_stmt_mono; eauto.
Qed.

Definition udef_ok (T M : N) (d d' : cdef) : Prop :=
  wf_stmt (cdbody d') = true /\ NoDup (binder_ids_def d') /\
  (forall b, In b (binder_ids_def d') -> b <> 0 /\ (In b (binder_ids_def d) \/ T < b)) /\
  ids_le_def M d' = true /\ scoped_def d' = true.

Lemma udef_ok_mono : forall T M M' d d', udef_ok T M d d' -> M <= M' -> udef_ok T M' d d'.
Proof.
  intros T M M' d d' (A & B & C & D & E) L. repeat split; auto; try apply C; auto.
  eapply ids_le_def_mono; eauto.
Qed.

Lemma uq_defs_spec : forall ds T m,
  T <= m -> Forall (fun d => wf_stmt (cdbody d) = true /\ pre_def T d = true) ds ->
  exists ds' M, maprs uq_def ds m = Ok (ds', M) /\ m <= M /\ Forall2 (udef_ok T M) ds ds'.
Proof.
  induction ds as [|d ds IH]; intros T m LE F; simpl.
  - exists [], m. repeat split; auto. lia.
  - inversion F as [|? ? [W P] F']; subst.
    destruct (uq_def_spec d T m) as (d' & m1 & E1 & L1 & W1 & B1 & I1 & S1); auto.
    destruct (IH T m1) as (ds' & M & E2 & L2 & F2); auto; try lia.
    rewrite E1; simpl. rewrite E2; simpl. exists (d' :: ds'), M. split; [reflexivity|]. split; [lia|].
    constructor; auto.
    destruct B1 as [ND BI]. repeat split; auto.
    + destruct (BI b H) as [Hb|Hb]; [apply in_nonzero in Hb; tauto | lia].
    + destruct (BI b H) as [Hb|Hb]; [apply in_nonzero in Hb; tauto | right; lia].
    + eapply ids_le_def_mono; eauto.
Qed.

Definition fdef_ok (M M' : N) (d : cdef) (q : fsdef) : Prop :=
  NoDup (fs_binder_ids_def q) /\
  (forall b, In b (fs_binder_ids_def q) -> In b (binder_ids_def d) \/ M < b) /\
  fs_ids_le_def M' q = true /\ fs_scoped_stmt (cids (fsdctx q)) (fsdbody q) = true.

Lemma fdef_ok_mono : forall M M1 M2 d q, fdef_ok M M1 d q -> M1 <= M2 -> fdef_ok M M2 d q.
Proof.
  intros M M1 M2 d q (A & B & C & D) L. repeat split; auto. eapply fs_ids_le_def_mono; eauto.
Qed.

Lemma focus_def_spec : forall d M m,
  M <= m -> wf_stmt (cdbody d) = true -> NoDup (binder_ids_def d) ->
  ids_le_def M d = true -> scoped_def d = true ->
  exists q m', focus_def d m = Ok (q, m') /\ m <= m' /\ fdef_ok M m' d q.
Proof.
  intros [name ctx body] M m LE W ND I S. unfold ids_le_def, scoped_def, binder_ids_def, focus_def in *. simpl in *.
  apply andb_true_iff in I; destruct I as [Ic Ib]. apply forallb_leb in Ic.
  assert (ND' := ND). apply NoDup_app_iff in ND'. destruct ND' as (ND1 & ND2 & DJ).
  destruct (proj2 (proj2 (proj2 focus_spec_all)) body m M (cids ctx)) as (b' & m' & E & L & B & I' & S'); auto.
  { split; [exact ND2|]. split; [apply binders_le_stmt; auto | exact LE]. }
  rewrite E; simpl. eexists _, _. split; [reflexivity|]. split; [lia|].
  unfold fdef_ok, fs_binder_ids_def, fs_ids_le_def; simpl. destruct B as [NDb BI].
  split; [|split; [|split]]; auto.
  - apply NoDup_app_iff. split; [|split]; auto.
    intros x Hc Hb. destruct (BI x Hb) as [H|H]; [eapply DJ; eauto|]. specialize (Ic x Hc). lia.
  - intros b Hb. apply in_app_or in Hb. destruct Hb as [Hb|Hb].
    + left. apply in_or_app; auto.
    + destruct (BI b Hb) as [H|H]; [left; apply in_or_app; auto | right; lia].
  - bsplit; auto. apply forallb_leb. eapply mem_le_mono; eauto. lia.
Qed.

Lemma focus_defs_spec : forall ds M m,
  M <= m ->
  Forall (fun d => wf_stmt (cdbody d) = true /\ NoDup (binder_ids_def d) /\ ids_le_def M d = true /\ scoped_def d = true) ds ->
  exists qs M', maprs focus_def ds m = Ok (qs, M') /\ m <= M' /\ Forall2 (fdef_ok M M') ds qs.
Proof.
  induction ds as [|d ds IH]; intros M m LE F; simpl.
  - exists [], m. repeat split; auto. lia.
  - inversion F as [|? ? (W & ND & I & S) F']; subst.
    destruct (focus_def_spec d M m) as (q & m1 & E1 & L1 & Q1); auto.
    destruct (IH M m1) as (qs & M' & E2 & L2 & F2); auto; try lia.
    rewrite E1; simpl. rewrite E2; simpl. exists (q :: qs), M'. split; [reflexivity|]. split; [lia|].
    constructor; auto. eapply fdef_ok_mono; eauto.
Qed.

Lemma uniquified_check_def_ok : forall T M d d',
  udef_ok T M d d' -> uniquified_check_def T (binder_ids_def d) d' = true.
Proof.
  intros T M d d' (W & ND & BI & I & S). unfold uniquified_check_def. bsplit.
  - apply c_path_uniq_def; auto.
  - apply forallb_forall. intros i Hi. destruct (BI i Hi) as [NZ [H|H]]; bsplit.
    + apply negb_true_iff. apply N.eqb_neq; auto.
    + apply orb_true_iff; right. apply memN_In; auto.
    + apply negb_true_iff. apply N.eqb_neq; auto.
    + apply orb_true_iff; left. apply N.ltb_lt; auto.
Qed.

Lemma unique_check_def_ok : forall T M M' d d' q,
  T <= M -> udef_ok T M d d' -> fdef_ok M M' d' q -> unique_check_def T (binder_ids_def d) q = true.
Proof.
  intros T M M' d d' q LE (W & ND & BI & I & S) (NDq & BQ & IQ & SQ). unfold unique_check_def. bsplit.
  - apply fs_path_uniq_def; auto.
  - unfold fs_free_ok_def. apply (proj2 (proj2 (fs_free_ok_all (fs_binder_ids_def q) ltac:(intro Z; destruct (BQ 0 Z) as [H|H]; [destruct (BI 0 H); congruence | lia])))); auto.
  - unfold fresh_above. apply forallb_forall. intros i Hi. apply orb_true_iff.
    destruct (BQ i Hi) as [H|H].
    + destruct (BI i H) as [_ [H'|H']]; [right; apply memN_In; auto | left; apply N.ltb_lt; auto].
    + left. apply N.ltb_lt. lia.
Qed.

Lemma uniquified_check_defs_ok : forall T M ds ds',
  Forall2 (udef_ok T M) ds ds' -> uniquified_check_defs T ds ds' = true.
Proof.
  induction 1; simpl; auto. bsplit; auto. eapply uniquified_check_def_ok; eauto.
Qed.

Lemma unique_check_defs_ok : forall T M M' ds ds', T <= M ->
  Forall2 (udef_ok T M) ds ds' -> forall qs, Forall2 (fdef_ok M M') ds' qs -> unique_check_defs T ds qs = true.
Proof.
  induction 2; intros qs F; inversion F; subst; simpl; auto. bsplit; auto.
  eapply unique_check_def_ok; eauto.
Qed.

Lemma forall2_right : forall (X Y : Type) (R : X -> Y -> Prop) (P : Y -> Prop) l l',
  Forall2 R l l' -> (forall x y, R x y -> P y) -> Forall P l'.
Proof. induction 1; intros; constructor; eauto. Qed.

Definition wf_pre (p : cprog) : Prop := pre_check p = true /\ focus_wf p = true.

Lemma wf_pre_forall : forall p, wf_pre p ->
  Forall (fun d => wf_stmt (cdbody d) = true /\ pre_def (cpmax p) d = true) (cpdefs p).
Proof.
  intros p [P W]. unfold pre_check, focus_wf in *. rewrite forallb_forall in *.
  apply Forall_forall. intros d Hd. split; auto.
Qed.

Theorem uniquify_unique_thm : forall p, pre_check p = true -> focus_wf p = true ->
  exists q, uniquify_prog p = Ok q /\ uniquified_check p q = true /\ focus_wf q = true /\ pre_check q = true.
Proof.
  intros p P W. unfold uniquify_prog.
  destruct (uq_defs_spec (cpdefs p) (cpmax p) (cpmax p)) as (ds' & M & E & L & F); try lia.
  { apply wf_pre_forall; split; auto. }
  rewrite E; simpl. eexists; split; [reflexivity|]. unfold uniquified_check, focus_wf, pre_check; simpl.
  split; [|split].
  - bsplit.
    + eapply uniquified_check_defs_ok; eauto.
    + apply forallb_forall. apply Forall_forall. eapply forall2_right; [exact F|].
      intros d d' (A & B & C & D & E'). exact D.
    + apply N.leb_le; auto.
  - apply forallb_forall. apply Forall_forall. eapply forall2_right; [exact F|].
    intros d d' (A & B & C & D & E'). exact A.
  - apply forallb_forall. apply Forall_forall. eapply forall2_right; [exact F|].
    intros d d' (A & B & C & D & E'). unfold pre_def. bsplit; auto.
    apply nodupN_NoDup. clear - B. revert B. generalize (binder_ids_def d'). intros l ND.
    induction l as [|x l IH]; [constructor|]. inversion ND; subst. unfold nonzero; simpl.
    destruct (negb (N.eqb x 0)); [constructor|]; auto. intro H. apply filter_In in H. tauto.
Qed.

Theorem focus_unique_thm : forall p, pre_check p = true -> focus_wf p = true ->
  exists q, focus_prog p = Ok q /\ unique_check p q = true.
Proof.
  intros p P W. unfold focus_prog, uniquify_prog.
  destruct (uq_defs_spec (cpdefs p) (cpmax p) (cpmax p)) as (ds' & M & E & L & F); try lia.
  { apply wf_pre_forall; split; auto. }
  rewrite E; simpl.
  destruct (focus_defs_spec ds' M M) as (qs & M' & E2 & L2 & F2); try lia.
  { eapply forall2_right; [exact F|]. intros d d' (A & B & C & D & E'). auto. }
  rewrite E2; simpl. eexists; split; [reflexivity|]. unfold unique_check; simpl. bsplit.
  - eapply unique_check_defs_ok; eauto.
  - apply forallb_forall. apply Forall_forall. eapply forall2_right; [exact F2|].
    intros d q (A & B & C & D). exact C.
  - apply N.leb_le. lia.
Qed.
