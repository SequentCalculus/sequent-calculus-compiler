(* C08, forward simulation of the RISC-V code generator: closures without captured variables
   (`create v : T = (){ clauses }`, `invoke v D`).  Such a closure needs no heap block: its first register
   is the null pointer and its second register the address of the code the Create statement emitted
   after its continuation - a jump table (one `JAL x0` of 4 bytes per destructor) followed by the clause
   bodies, or the single clause.  An indirect jump (`JALR`) lands on the instruction of non-zero size at
   the target address, i.e. behind the labels placed there.
   This file: the fragment `stmt_fr` (no Let / Switch / print; Create only with an empty environment and,
   when the flag is off, not at all), `clo_ok` (what a closure's code pointer points to), the layout
   lemma for the code of a Create statement, and the statement-level theorems for Create and Invoke. *)
From Coq Require Import List ZArith NArith String Bool Lia FMapPositive.
From SCC Require Import Base.Sexp Lang.AxSyn Sem.AxSem Model.ParMoves Model.Backend Model.RV Sem.RVSem Sem.RVWf
     Model.Linearize Model.LinCheck Generated.Constants Proof.LinBasics
     Proof.RVSel Proof.SubstGraph Proof.SubstBackends Proof.RVSubst Proof.RVSimAddr Proof.BackendInv Proof.RVSimRel Proof.RVSimStmt.
From SCC Require Proof.X86SimClo Proof.X86SimProg.
Import ListNotations.
Open Scope Z_scope.
Open Scope list_scope.

(* as XR, XS in Proof/RVSimRel.v *)
Module XC := SCC.Proof.X86SimClo.
Module XP := SCC.Proof.X86SimProg.

Fixpoint stmt_fr (clo : bool) (s : stmt) : bool :=
  match s with
  | Substitute _ next => stmt_fr clo next
  | Call _ _ | Exit _ | Invoke _ _ _ _ => true
  | Literal _ _ next | Op _ _ _ _ next => stmt_fr clo next
  | IfC _ _ _ t e => stmt_fr clo t && stmt_fr clo e
  | Create _ _ (Some []) cls next =>
      clo && negb (XC.is_nil cls)
      && (fix go (cls : list (ident * ctx * stmt)) : bool :=
            match cls with
            | [] => true
            | (_, _, b) :: r => stmt_fr clo b && go r
            end) cls
      && stmt_fr clo next
  | _ => false
  end.
Definition clauses_fr (clo : bool) (cls : list clause) : bool := forallb (fun c => stmt_fr clo (cl_body c)) cls.
Lemma stmt_fr_create clo v t env cls next :
  stmt_fr clo (Create v t env cls next) = true ->
  clo = true /\ env = Some [] /\ cls <> [] /\ clauses_fr clo cls = true /\ stmt_fr clo next = true.
Proof.
  cbn [stmt_fr]. destruct env as [[|b env]|]; try discriminate. intros H.
  apply andb_true_iff in H as [H N]. apply andb_true_iff in H as [E G]. apply andb_true_iff in E as [C E].
  split; [exact C|]. split; [reflexivity|]. split; [destruct cls; [discriminate|congruence]|]. split; [|exact N].
  clear E N. induction cls as [|[[x cx] b] r IH]; [reflexivity|]. cbn [clauses_fr forallb cl_body snd].
  apply andb_true_iff in G as [G1 G2]. rewrite G1. exact (IH G2).
Qed.

(* the fragments of the x86-64 development, without print statements, are inside *)
Lemma stmt_int_fr : forall s, SimFrag.stmt_int s = true -> stmt_has_print s = false -> stmt_fr false s = true.
Proof.
  induction s; intros SI NP; cbn [SimFrag.stmt_int stmt_has_print stmt_fr] in *; try discriminate; auto.
  - apply andb_true_iff in SI as [_ SI]. auto.
  - apply andb_true_iff in SI as [S1 S2]. apply orb_false_iff in NP as [N1 N2]. rewrite IHs1, IHs2; auto.
Qed.
Lemma stmt_cf_fr : forall s, SimFrag.stmt_cf s = true -> stmt_has_print s = false -> stmt_fr true s = true.
Proof.
  intros s. induction s using stmt_ind2; intros SI NP; cbn [SimFrag.stmt_cf stmt_has_print stmt_fr] in *; try discriminate; auto.
  - apply andb_true_iff in SI as [_ SI]. auto.
  - destruct env as [[|b0 env]|]; try discriminate.
    apply andb_true_iff in SI as [SI SN]. apply andb_true_iff in SI as [NE SC]. apply orb_false_iff in NP as [NC NN].
    rewrite NE, (IHs SN NN). cbn [andb]. rewrite andb_true_r.
    clear NE SN NN IHs. induction cls as [|[[x cx] b] r IHr]; [reflexivity|].
    inversion H as [|? ? H0 Hr]; subst. cbn [cl_body snd] in H0.
    apply andb_true_iff in SC as [SC0 SCr]. apply andb_true_iff in SC0 as [_ SB]. apply orb_false_iff in NC as [NB NR].
    rewrite (H0 SB NB). cbn [andb]. exact (IHr Hr SCr NR).
  - apply andb_true_iff in SI as [S1 S2]. apply orb_false_iff in NP as [N1 N2]. rewrite IHs1, IHs2; auto.
Qed.
Lemma stmt_fr_mono : forall s, stmt_fr false s = true -> stmt_fr true s = true.
Proof.
  induction s; intros H; cbn [stmt_fr] in *; try discriminate; auto.
  - destruct env as [[|]|]; discriminate.
  - apply andb_true_iff in H as [H1 H2]. rewrite IHs1, IHs2; auto.
Qed.

(* the code of a statement of the fragment starts with an instruction of non-zero size *)
Definition starts_nz (cs : list rcode) : Prop := exists c r, cs = c :: r /\ isize c <> 0.
Lemma starts_nz_cons c r : isize c <> 0 -> starts_nz (c :: r).
Proof. intros H. exists c, r. auto. Qed.
Lemma starts_nz_app a b : starts_nz a -> starts_nz (a ++ b).
Proof. intros (c & r & -> & H). exists c, (r ++ b). auto. Qed.
Lemma starts_nz_app_or a b : (a = [] \/ starts_nz a) -> starts_nz b -> starts_nz (a ++ b).
Proof. intros [->|H] Hb; [exact Hb|now apply starts_nz_app]. Qed.
Lemma isize_LI t n : isize (LI t n) <> 0.
Proof. cbn. destruct (fits12 n); [lia|]. destruct (fits32 n); lia. Qed.

Lemma cwc_nz c : forall tm lc c1 lc1,
  code_weakening_contraction rv_backend tm c lc = Ok (c1, lc1) -> c1 = [] \/ starts_nz c1.
Proof.
  induction tm as [|[b tg] tm IH]; intros lc c1 lc1 H; cbn [code_weakening_contraction] in H.
  - inversion H. now left.
  - destruct (chi_ext_dec (bchi b)) as [X|X]; [rewrite X in H; eauto|]. rewrite (chi_match _ _ _ X) in H.
    destruct (update_reference_count rv_backend (bvar b) c (List.length tg) lc) as [[cl lcl]|] eqn:U; cbn [rbind] in H; [|discriminate].
    destruct (code_weakening_contraction rv_backend tm c lcl) as [[c2 lc2]|] eqn:W; cbn [rbind] in H; [|discriminate].
    inversion H; subst c1 lc1. unfold update_reference_count in U.
    destruct (variable_temporary rv_backend Fst c (idn (bvar b))) as [t|]; cbn [rbind] in U; [|discriminate].
    destruct (List.length tg) as [|[|n]]; inversion U; subst; cbn [app]; [|eauto|]; right; apply starts_nz_cons; cbn; lia.
Qed.
Lemma pm_nz am c2 : parallel_moves_code rv_backend am = Ok c2 -> Forall (fun c => isize c <> 0) c2.
Proof.
  unfold parallel_moves_code. destruct (spanning_forest _ _ _ am) as [forest|]; [|discriminate]. intros H; inversion H; subst.
  apply Forall_forall. intros x Hx. apply in_flat_map in Hx as (r & _ & Hx). unfold emit_root in Hx.
  apply in_flat_map in Hx as (i & _ & Hx). destruct i; cbn in Hx; destruct Hx as [<-|[]]; cbn; lia.
Qed.
Lemma Forall_nz_or l : Forall (fun c => isize c <> 0) l -> l = [] \/ starts_nz l.
Proof. intros H. destruct l as [|c r]; [now left|]. right. inversion H; subst. exists c, r. auto. Qed.

Lemma cs_starts_nz types clo : forall s c lc code lc',
  stmt_fr clo s = true -> rcs types s c lc = Ok (code, lc') -> starts_nz code.
Proof.
  induction s as [re next IHn|l args|v t tag args next IHn|v t cls|v t env cls next IHn|v tag t args|n v next IHn|a o b v next IHn|nl v next IHn|so a ob thenc IHt elsec IHe|v];
    intros c lc code lc' FR CS; cbn [stmt_fr] in FR; try discriminate.
  - destruct (cs_substitute _ _ _ _ _ _ _ _ CS) as (c1 & lc1 & c2 & c3 & WC & CE & NX & ->). cbn [b_mark rv_backend app].
    apply starts_nz_app_or; [eapply cwc_nz; eauto|]. apply starts_nz_app_or; [|eauto].
    unfold code_exchange in CE. destruct (connections _ _ _ _); cbn [rbind] in CE; [|discriminate]. apply Forall_nz_or. eapply pm_nz; eauto.
  - destruct (cs_call _ _ _ _ _ _ _ _ CS) as (-> & _). apply starts_nz_cons. cbn; lia.
  - destruct env as [[|b0 env]|]; try discriminate.
    destruct (cs_create _ _ _ _ _ _ _ _ _ _ _ CS) as (rest & cenv & c1 & lc1 & tmpv & c3 & lc3 & c5 & SL & STO & _ & _ & _ & ->).
    cbn [b_mark rv_backend app]. apply starts_nz_app.
    cbn [List.length] in SL. rewrite SimFrag.split_last0 in SL.
    inversion SL; subst. cbn [b_store rv_backend] in STO. unfold r_store in STO. cbn [List.length store_fields] in STO.
    destruct (r_fresh Fst rest); cbn [rbind] in STO; inversion STO; subst. apply starts_nz_cons. cbn; lia.
  - destruct (cs_invoke _ _ _ _ _ _ _ _ _ _ CS) as (tmpv & d & _ & _ & _ & CD).
    destruct (Nat.leb (List.length (txtors d)) 1); [subst code; apply starts_nz_cons; cbn; lia|].
    destruct CD as (k & _ & ->). cbn [b_mark b_add_and_jump rv_backend app]. unfold r_add_and_jump.
    destruct (addi_fits _); apply starts_nz_cons; [cbn; lia|apply isize_LI].
  - destruct (cs_literal _ _ _ _ _ _ _ _ _ CS) as (tv & c2 & _ & _ & ->). apply starts_nz_cons, isize_LI.
  - destruct (cs_op _ _ _ _ _ _ _ _ _ _ _ CS) as (tv & ta & tb & c2 & _ & _ & _ & _ & ->).
    destruct o; apply starts_nz_cons; cbn; lia.
  - destruct (cs_ifc _ _ _ _ _ _ _ _ _ _ _ CS) as (ta & c1 & c2 & lc2 & c3 & _ & C1 & _ & _ & ->).
    destruct ob as [b|]; [destruct C1 as (tb & _ & ->)|subst c1]; destruct so; apply starts_nz_cons; cbn; lia.
  - destruct (cs_exit _ _ _ _ _ _ _ CS) as (tv & _ & -> & _). apply starts_nz_cons. cbn; lia.
Qed.

Lemma code_table_nth cls fresh k c :
  nth_error cls k = Some c -> nth_error (code_table rv_backend cls fresh) k = Some (JAL ZERO (fresh +++ "_" +++ show_ident (cl_xtor c))).
Proof.
  unfold code_table. cbn [b_jump_label_fixed rv_backend]. revert k.
  induction cls as [|c0 r IH]; intros k H; [destruct k; discriminate|]. cbn [flat_map app r_jump_label].
  destruct k as [|k]; cbn [nth_error] in *; [inversion H; reflexivity|auto].
Qed.
Lemma code_table_length cls fresh : List.length (code_table rv_backend cls fresh) = List.length cls.
Proof. unfold code_table. cbn [b_jump_label_fixed rv_backend]. induction cls; cbn; auto. Qed.
Lemma code_table_size cls fresh : forall k, (k <= List.length cls)%nat -> size_of (firstn k (code_table rv_backend cls fresh)) = 4 * Z.of_nat k.
Proof.
  unfold code_table. cbn [b_jump_label_fixed rv_backend].
  induction cls as [|c0 r IH]; intros k H; cbn [List.length] in H.
  - destruct k; [reflexivity|lia].
  - destruct k as [|k]; [reflexivity|]. cbn [flat_map app firstn size_of isize r_jump_label]. rewrite IH by lia. lia.
Qed.
Lemma r_load_nil cx lc : r_load [] cx lc = Ok ([], lc).
Proof. reflexivity. Qed.

(* a linearly well-typed Invoke: the context ends with the closure variable *)
Lemma lin_invoke_inv S c v tag t args :
  lin_check S c (Invoke v tag t args) = true ->
  exists c0 b, c = c0 ++ [b] /\ idn (bvar b) = idn v /\ bchi b = Cns /\ bty b = t /\ args_ok S t tag c0 = true.
Proof.
  intros LC. cbn [lin_check] in LC. apply andb_true_iff in LC as [_ LC].
  destruct (split_lastn 1 c) as [[c0 [|b [|b' r]]]|] eqn:SLc; try discriminate.
  apply split_lastn_Some in SLc as [-> _].
  apply andb_true_iff in LC as [LC AO]. apply andb_true_iff in LC as [LC TY]. apply andb_true_iff in LC as [IDb CH].
  apply N.eqb_eq in IDb. apply ty_eqb_eq in TY. apply chi_eqb_eq in CH. eauto 8.
Qed.

Section Clo.
Variable im : image.
Variable p : prog.
Variable clo : bool.
Hypothesis IMG : rimg_ok im.
Hypothesis EVEN : forall pc a, PM.find pc (addr_of im) = Some a -> a mod 2 = 0.
Hypothesis SMALL : clo = true -> forall pc a, PM.find pc (addr_of im) = Some a -> a < 4611686018427387904 - 32.
Hypothesis ENC : forall pc c, PM.find pc (code im) = Some c -> instr_wf c = true.

(* what the second register of a closure variable points to: clause k of a closure whose clauses are the
   declared destructors in declaration order is entered, by an indirect jump to a (one clause) or to
   a + 4k (jump table), at the code generated for its body, with the state unchanged; the body is linearly
   well-typed in the clause context and belongs to the fragment *)
Definition clo_ok (a : Z) (tn : ident) (cls : list clause) : Prop :=
  cls_ok (sigs_of p) (Decl tn) cls = true /\ 0 <= a < 4611686018427387904 - 32 /\ a mod 2 = 0 /\
  forall k c, nth_error cls k = Some c ->
    exists i pcb lcb cb lcb',
      PM.find (key (a + (if Nat.leb (List.length cls) 1 then 0 else jump_length (N.of_nat k)))) (index_at im) = Some i /\
      a + (if Nat.leb (List.length cls) 1 then 0 else jump_length (N.of_nat k)) < 4611686018427387904 - 32 /\
      (forall s, star im i s pcb s) /\
      rcs (ptypes p) (cl_body c) (cl_ctx c) lcb = Ok (cb, lcb') /\ placed im pcb cb /\
      lin_check (sigs_of p) (cl_ctx c) (cl_body c) = true /\ stmt_fr clo (cl_body c) = true.

(* the closure code a Create statement emits establishes clo_ok for the address of its label *)
Lemma create_layout pc P fresh tn cls c5 lc3 lc5 :
  clo = true ->
  placed im pc (P ++ ([LAB fresh] ++ table_or_nil rv_backend cls fresh) ++ c5) ->
  clauses_code rv_backend (ptypes p) [] fresh cls lc3 = Ok (c5, lc5) ->
  cls <> [] -> cls_ok (sigs_of p) (Decl tn) cls = true ->
  (forall c, In c cls -> lin_check (sigs_of p) (cl_ctx c) (cl_body c) = true /\ stmt_fr clo (cl_body c) = true) ->
  exists a, label_addr im fresh = Some a /\ clo_ok a tn cls.
Proof.
  intros CLO PL CC NE CO ST.
  apply placed_app in PL as [_ PL]. set (pcl := padd pc (List.length P)) in *.
  destruct PL as [CA LA]. rewrite <- app_assoc in CA, LA. cbn [app] in CA, LA.
  pose proof CA as CA'. apply at_code_cons in CA' as [[CL (a & AL)] CAt].
  assert (FL : find_label (labels im) fresh = Some pcl) by exact (LA O fresh eq_refl).
  exists a. split; [exact (label_addr_of im fresh pcl a FL AL)|].
  split; [exact CO|]. split.
  { split; [|exact (SMALL CLO pcl a AL)]. destruct (io_addr im IMG pcl _ CL) as (a' & A' & GE). unfold CODE_BASE in GE. assert (a' = a) by congruence. lia. }
  split; [exact (EVEN pcl a AL)|].
  intros k c Hk.
  destruct c as [[x cx] body].
  destruct (clauses_code_nth rv_backend _ _ _ _ _ _ _ k x cx body CC Hk) as (pre5 & lc0 & cl & lc1 & cb & lc2 & post5 & E5 & LD & BD & PRE0).
  cbn [b_load rv_backend] in LD. rewrite r_load_nil in LD. inversion LD; subst cl lc1. rewrite app_nil_r in BD. cbn [app b_label rv_backend] in E5.
  destruct (ST _ (nth_error_In _ _ Hk)) as (S1 & S2). cbn [cl_ctx cl_body fst snd] in *.
  assert (Lk : (k < List.length cls)%nat) by (apply nth_error_Some; congruence).
  set (tb := table_or_nil rv_backend cls fresh) in *.
  set (lx := fresh +++ "_" +++ show_ident x) in *.
  assert (CODE : at_code im pcl ([LAB fresh] ++ tb ++ pre5 ++ [LAB lx] ++ cb ++ post5)) by (rewrite E5 in CA; exact CA).
  assert (LABS : labels_ok im pcl ([LAB fresh] ++ tb ++ pre5 ++ [LAB lx] ++ cb ++ post5)) by (rewrite E5 in LA; exact LA).
  set (jl := (1 + List.length tb + List.length pre5)%nat).
  assert (NL : nth_error ([LAB fresh] ++ tb ++ pre5 ++ [LAB lx] ++ cb ++ post5) jl = Some (LAB lx)).
  { unfold jl. cbn [app Nat.add nth_error]. rewrite nth_error_app2 by lia. rewrite nth_error_app2 by lia.
    replace (_ - _ - _)%nat with O by lia. reflexivity. }
  destruct (CODE jl _ NL) as (CLx & (alx & ALx)).
  pose proof (LABS jl _ NL) as FLx.
  assert (CB : placed im (padd pcl (S jl)) cb).
  { assert (PLc : placed im pcl (([LAB fresh] ++ tb ++ pre5 ++ [LAB lx]) ++ cb ++ post5)).
    { rewrite <- !app_assoc. split; [exact CODE|exact LABS]. }
    apply placed_app in PLc as [_ PLc]. apply placed_app in PLc as [PLc _].
    replace (List.length ([LAB fresh] ++ tb ++ pre5 ++ [LAB lx])) with (S jl) in PLc
      by (unfold jl; rewrite !app_length; cbn [List.length]; lia).
    exact PLc. }
  destruct (cs_starts_nz (ptypes p) clo body cx lc0 cb lc2 S2 BD) as (c0 & rb & Ecb & NZ0).
  (* from the clause label into the body *)
  assert (INTO : forall s, star im (padd pcl jl) s (padd pcl (S jl)) s).
  { intros s. eapply star_step; [eapply one_next; [exact CLx|exact ALx|reflexivity]|]. rewrite <- padd_succ. apply star_refl. }
  destruct (Nat.leb (List.length cls) 1) eqn:LE.
  - (* a single clause, no table: the label of the closure is followed by the label of the clause, then the body *)
    assert (TB : tb = []) by (unfold tb, table_or_nil; now rewrite LE).
    assert (K0 : k = O) by (apply Nat.leb_le in LE; lia). subst k.
    assert (P5 : pre5 = []) by (apply PRE0; reflexivity).
    assert (J1 : jl = 1%nat) by (unfold jl; rewrite TB, P5; reflexivity).
    exists (padd pcl (S jl)), (padd pcl (S jl)), lc0, cb, lc2.
    split; [|split; [rewrite Z.add_0_r; exact (SMALL CLO pcl a AL)|split; [intros s; apply star_refl|split; [exact BD|split; [exact CB|split; [exact S1|exact S2]]]]]].
    rewrite Z.add_0_r. rewrite TB, P5, Ecb in CODE. cbn [app] in CODE. rewrite J1.
    pose proof (addr_along im IMG _ pcl a CODE AL 2%nat c0 eq_refl) as A2. cbn [firstn size_of isize] in A2.
    replace (a + (0 + (0 + 0))) with a in A2 by lia.
    apply (io_index im IMG (padd pcl 2) c0 a); [exact (proj1 (CODE 2%nat c0 eq_refl))|exact NZ0|exact A2].
  - (* the jump table *)
    assert (TB : tb = code_table rv_backend cls fresh) by (unfold tb, table_or_nil; now rewrite LE).
    assert (NJ : nth_error ([LAB fresh] ++ tb ++ pre5 ++ [LAB lx] ++ cb ++ post5) (1 + k) = Some (JAL ZERO lx)).
    { cbn [app Nat.add nth_error]. rewrite nth_error_app1 by (rewrite TB, code_table_length; lia).
      rewrite TB. apply (code_table_nth cls fresh k (x, cx, body) Hk). }
    destruct (CODE _ _ NJ) as (CJ & (aj & AJ)).
    pose proof (addr_along im IMG _ pcl a CODE AL (1 + k)%nat _ NJ) as AJ'.
    assert (SZ : size_of (firstn (1 + k) ([LAB fresh] ++ tb ++ pre5 ++ [LAB lx] ++ cb ++ post5)) = 4 * Z.of_nat k).
    { cbn [app Nat.add firstn size_of isize]. rewrite firstn_app. replace (k - List.length tb)%nat with O by (rewrite TB, code_table_length; lia).
      cbn [firstn]. rewrite app_nil_r, TB, code_table_size by lia. lia. }
    rewrite SZ in AJ'.
    exists (padd pcl (1 + k)), (padd pcl (S jl)), lc0, cb, lc2.
    split; [|split; [|split; [|split; [exact BD|split; [exact CB|split; [exact S1|exact S2]]]]]].
    + unfold jump_length. rewrite nat_N_Z. apply (io_index im IMG _ (JAL ZERO lx) _ CJ); [cbn; lia|exact AJ'].
    + unfold jump_length. rewrite nat_N_Z. exact (SMALL CLO _ _ AJ').
    + intros s. eapply star_step; [eapply one_jump; [exact CJ|exact AJ|apply step_JAL0; exact FLx]|apply INTO].
Qed.

Local Notation rrel := (rrel clo_ok).

Theorem sim_create c e s v tn cls next lc code lc' pc :
  clo = true ->
  rrel c e s -> NoDup (ids (c ++ [mkb v Cns (Decl tn)])) ->
  rcs (ptypes p) (Create v (Decl tn) (Some []) cls next) c lc = Ok (code, lc') ->
  placed im pc code ->
  cls <> [] -> cls_ok (sigs_of p) (Decl tn) cls = true ->
  (forall cl, In cl cls -> lin_check (sigs_of p) (cl_ctx cl) (cl_body cl) = true /\ stmt_fr clo (cl_body cl) = true) ->
  exists c3 lc3 rest s',
    code = [MV (pos_reg Fst (List.length c)) ZERO; LA (pos_reg Snd (List.length c)) (type_label (Decl tn) (lc + 1)%N)] ++ c3 ++ rest /\
    rcs (ptypes p) next (c ++ [mkb v Cns (Decl tn)]) (lc + 1)%N = Ok (c3, lc3) /\
    star im pc s (padd pc 2) s' /\
    rrel (c ++ [mkb v Cns (Decl tn)]) (e ++ [(v, VClo tn cls [])]) s' /\ same_mem s s'.
Proof.
  intros CLO R ND CS PL NE CO ST.
  destruct (cs_create _ _ _ _ _ _ _ _ _ _ _ CS) as (rest & cenv & c1 & lc1 & tmpv & c3 & lc3 & c5 & SL & STO & TV & NX & CC & ->).
  cbn [List.length] in SL. rewrite SimFrag.split_last0 in SL. inversion SL; subst rest cenv. clear SL.
  cbn [b_store rv_backend] in STO. unfold r_store in STO. cbn [List.length store_fields] in STO.
  destruct (r_fresh Fst c) as [t1|] eqn:T1; cbn [rbind] in STO; [|discriminate].
  inversion STO; subst c1 lc1. clear STO.
  assert (T1' : rtpos Fst (List.length c) = Ok t1) by exact T1.
  assert (T2 : rtpos Snd (List.length c) = Ok tmpv) by (apply (rvt_fresh c (mkb v Cns (Decl tn)) tmpv ND TV)).
  destruct (rtpos_val _ _ _ T1') as (E1 & _). destruct (rtpos_val _ _ _ T2) as (E2 & _). subst t1 tmpv.
  set (t1 := pos_reg Fst (List.length c)) in *. set (t2 := pos_reg Snd (List.length c)) in *.
  set (fresh := type_label (Decl tn) (lc + 1)%N) in *.
  cbn [b_mark b_load_label b_label rv_backend app r_load_label] in PL |- *.
  (* the closure's code *)
  destruct (create_layout pc ([MV t1 ZERO] ++ [LA t2 fresh] ++ c3) fresh tn cls c5 lc3 lc' CLO) as (a & LAD & CLOK); auto.
  exists c3, lc3, (([LAB fresh] ++ table_or_nil rv_backend cls fresh) ++ c5), (rset (rset s t1 (Some 0)) t2 (Some a)).
  split; [reflexivity|]. split; [exact NX|].
  destruct PL as [CA _]. cbn [app] in CA.
  destruct (rtpos_regs _ _ _ T1') as (Z1 & N1 & H1 & F1). destruct (rtpos_regs _ _ _ T2) as (Z2 & N2 & H2 & F2).
  assert (NE12 : t1 <> t2) by (apply (rtpos_neq _ _ _ _ _ _ T1' T2); congruence).
  split; [|split].
  - eapply star_trans; [eapply star_next; [exact CA|reflexivity]|].
    apply at_code_cons in CA as [_ CA]. eapply star_next; [exact CA|]. intros ad. cbn [step]. rewrite LAD. reflexivity.
  - apply (rr_push clo_ok c e s _ (mkb v Cns (Decl tn)) (VClo tn cls []) R ND).
    + intros r NR _. rewrite !rget_rset_other; auto; intros E; subst r; eapply NR; eauto.
    + apply (vrep_clo clo_ok _ (List.length c) (mkb v Cns (Decl tn)) tn cls a t1 t2); auto.
      * rewrite rget_rset_other by congruence. apply rget_rset_same. exact Z1.
      * apply rget_rset_same. exact Z2.
  - eapply same_mem_trans; apply same_mem_rset.
Qed.

Theorem sim_invoke c e s v tag t args code lc lc' pc e0 x tn cls ce cl e1 :
  rrel c e s ->
  AxSem.split_last 1 e = Some (e0, [(x, VClo tn cls ce)]) -> N.eqb (idn x) (idn v) = true ->
  find_clause cls tag = Some cl -> bind (vars (cl_ctx cl)) (map snd e0) = Some e1 ->
  lin_check (sigs_of p) c (Invoke v tag t args) = true ->
  rcs (ptypes p) (Invoke v tag t args) c lc = Ok (code, lc') -> at_code im pc code ->
  exists pcb lcb cb lcb' s',
    star im pc s pcb s' /\
    rcs (ptypes p) (cl_body cl) (cl_ctx cl) lcb = Ok (cb, lcb') /\ placed im pcb cb /\
    lin_check (sigs_of p) (cl_ctx cl) (cl_body cl) = true /\ stmt_fr clo (cl_body cl) = true /\
    rrel (cl_ctx cl) (e1 ++ ce) s' /\ same_mem s s'.
Proof.
  intros R SL IDX FC BD LC CS CA.
  apply SimFrag.split_last1_inv in SL. subst e.
  destruct (lin_invoke_inv _ _ _ _ _ _ LC) as (c0 & b & -> & IDb & CH & TY & AO).
  (* the closure's representation *)
  pose proof (rr_last clo_ok _ _ _ _ _ _ R) as V.
  inversion V as [|b1 tn1 cls1 a t1 t2 K1 K2 T1 T2 V1 V2 CLO]; subst. clear V.
  destruct CLO as (CO & AB & AEV & ENTRY).
  (* the register the generator jumps through *)
  destruct (cs_invoke _ _ _ _ _ _ _ _ _ _ CS) as (tmpv & d & TV & LT & _ & CODE).
  assert (TVeq : tmpv = t2).
  { rewrite <- IDb in TV. rewrite (rvt_of_nth0 (c0 ++ [b]) (List.length c0) b (rr_nodup R) (nth_error_mid _ _ _)) in TV.
    congruence. }
  subst tmpv.
  (* the declaration and the position of the clause *)
  rewrite K2 in *. unfold cls_ok, type_xtors in CO. cbn [sigs_of sg_types] in CO.
  unfold lookup_type in LT.
  destruct (find (fun d => ident_eqb (tname d) tn) (ptypes p)) as [d'|] eqn:FD; [|discriminate]. inversion LT; subst d'. clear LT.
  destruct (SimFrag.find_clause_pos cls (txtors d) tag cl 0%N CO FC) as (k & xk & Hk & Hxk & XP & FX & SMk).
  pose proof (SimFrag.cls_sig_length _ _ CO) as LCL.
  destruct (ENTRY k cl Hk) as (i & pcb & lcb & cb & lcb' & IX & ABk & ARR & CSb & PLb & LCb & FRb).
  (* the new environment: nothing but X1 changes *)
  assert (R1 : forall s', (forall r, r <> TEMP -> rget s' r = rget s r) -> rrel (cl_ctx cl) (e1 ++ []) s').
  { intros s' KEEP. rewrite app_nil_r.
    assert (R0 : rrel c0 e0 s').
    { apply (rr_keep clo_ok c0 e0 s s' (rr_prefix clo_ok c0 b e0 _ s R)).
      - apply KEEP; discriminate.
      - apply KEEP; discriminate.
      - intros j bj n tj Hj AL Tj. apply KEEP. apply rtpos_regs in Tj. tauto. }
    apply (rr_bind clo_ok c0 e0 s' (cl_ctx cl) e1 R0 (SimFrag.lin_nodup _ _ _ LCb)); [|exact BD].
    unfold args_ok, lookup_xtor, type_xtors in AO. cbn [sigs_of sg_types] in AO. rewrite FD, FX in AO.
    exact (SimFrag.sig_match_join _ _ _ AO SMk). }
  exists pcb, lcb, cb, lcb'. cbn [b_mark b_jump b_add_and_jump b_jump_length rv_backend app] in CODE.
  rewrite <- LCL in CODE. destruct (Nat.leb (List.length cls) 1) eqn:LE.
  - (* one destructor: jump through the register *)
    subst code. rewrite Z.add_0_r in IX. unfold r_jump in CA.
    exists s. split; [|split; [exact CSb|split; [exact PLb|split; [exact LCb|split; [exact FRb|split; [apply R1; auto|apply same_mem_refl]]]]]].
    eapply star_trans; [|apply ARR]. eapply star_jump; [exact CA|]. intros ad. now apply step_JALR0 with (a := a).
  - (* several destructors: add the table offset, then jump *)
    destruct CODE as (k' & XP' & ->). assert (k' = N.of_nat k) by (rewrite XP in XP'; inversion XP'; lia). subst k'.
    set (off := jump_length (N.of_nat k)) in *.
    assert (OFF : 0 <= off) by (unfold off, jump_length; lia).
    assert (WR : wrap (a + off) = a + off) by (apply wrap_small; unfold min_int, max_int, two63; lia).
    assert (EV : (a + off) mod 2 = 0).
    { unfold off, jump_length. replace (a + 4 * Z.of_N (N.of_nat k)) with (a + (2 * Z.of_N (N.of_nat k)) * 2) by lia.
      rewrite Z.mod_add by lia. exact AEV. }
    set (s1 := rset s TEMP (Some (a + off))).
    exists s1. split; [|split; [exact CSb|split; [exact PLb|split; [exact LCb|split; [exact FRb|split; [|apply same_mem_rset]]]]]].
    2:{ apply R1. intros r NR. unfold s1. apply rget_rset_other. congruence. }
    assert (JMP : forall ad, step im ad (JALR ZERO TEMP 0) s1 = Jump s1 i).
    { intros ad. apply step_JALR0 with (a := a + off); [apply rget_rset_same, TEMP_nz|exact EV|exact IX]. }
    eapply star_trans; [|apply ARR].
    unfold r_add_and_jump in CA. destruct (addi_fits off) eqn:FI; cbn [app] in CA.
    + (* the offset is an ADDI immediate *)
      eapply star_trans; [eapply (star_next im _ _ _ s s1); [exact CA|]|].
      * intros ad. unfold s1. rewrite <- WR. now apply step_ADDI.
      * apply at_code_cons in CA as [_ CA]. eapply star_jump; [exact CA|exact JMP].
    + (* a larger offset: LI X1, off; ADD X1, t2, X1 *)
      assert (NT2 : t2 <> TEMP) by (apply rtpos_regs in T2; tauto).
      eapply star_trans; [eapply (star_next im _ _ _ s (rset s TEMP (Some off))); [exact CA|reflexivity]|].
      apply at_code_cons in CA as [_ CA].
      eapply star_trans; [eapply (star_next im _ _ _ _ s1); [exact CA|]|].
      * intros ad. rewrite (step_ADD im ad TEMP t2 TEMP _ a off).
        -- unfold s1. now rewrite rset_rset, WR.
        -- now rewrite rget_rset_other by congruence.
        -- apply rget_rset_same, TEMP_nz.
      * apply at_code_cons in CA as [_ CA]. eapply star_jump; [exact CA|exact JMP].
Qed.

(* progress at Invoke: under the relation a linearly well-typed invoke finds its closure, its clause and
   its arguments *)
Lemma invoke_progress c e s v tag t args :
  rrel c e s -> lin_check (sigs_of p) c (Invoke v tag t args) = true ->
  exists e0 x tn cls cl e1,
    AxSem.split_last 1 e = Some (e0, [(x, VClo tn cls [])]) /\ N.eqb (idn x) (idn v) = true /\
    find_clause cls tag = Some cl /\ bind (vars (cl_ctx cl)) (map snd e0) = Some e1.
Proof.
  intros R LC. pose proof (rr_length R) as LEN.
  destruct (lin_invoke_inv _ _ _ _ _ _ LC) as (c0 & b & -> & IDb & CH & TY & AO).
  rewrite app_length in LEN. cbn [List.length] in LEN.
  destruct (exists_last (l := e)) as (e0 & [x val] & ->); [intros ->; cbn in LEN; lia|].
  rewrite app_length in LEN. cbn [List.length] in LEN.
  pose proof (rr_last clo_ok _ _ _ _ _ _ R) as V.
  inversion V as [? z ? K1 ?|b1 tn cls a t1 t2 K1 K2 T1 T2 V1 V2 CLO]; subst; [congruence|]. clear V.
  destruct CLO as (CO & _ & _ & ENTRY).
  assert (IDX : idn x = idn v).
  { pose proof (rr_ids R) as Ids. unfold env_ids, ids in Ids. rewrite !map_app in Ids. cbn [map fst] in Ids.
    apply app_inj_tail in Ids as [_ E]. congruence. }
  rewrite K2 in *. unfold cls_ok, type_xtors in CO. cbn [sigs_of sg_types] in CO.
  unfold args_ok, lookup_xtor, type_xtors in AO. cbn [sigs_of sg_types] in AO.
  destruct (find (fun d => ident_eqb (tname d) tn) (ptypes p)) as [d|] eqn:FD; [|discriminate].
  destruct (find (fun x => ident_eqb (xname x) tag) (txtors d)) as [xk|] eqn:FX; [|discriminate].
  destruct (SimFrag.find_clause_total cls (txtors d) tag xk CO FX) as (cl & FC).
  destruct (SimFrag.find_clause_pos cls (txtors d) tag cl 0%N CO FC) as (k & xk' & Hk & Hxk & XP & FX' & SMk).
  assert (xk' = xk) by congruence. subst xk'.
  destruct (SimFrag.bind_total (vars (cl_ctx cl)) (map snd e0)) as (e1 & BD).
  { apply sig_match_iff, same_kt_length in AO. apply sig_match_iff, same_kt_length in SMk. unfold vars. rewrite !map_length. lia. }
  exists e0, x, tn, cls, cl, e1. split; [apply SimFrag.split_last1_app|]. split; [apply N.eqb_eq; exact IDX|]. auto.
Qed.
End Clo.
