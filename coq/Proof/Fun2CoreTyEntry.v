(* Proof/Fun2CoreTyEntry  -  C12, the entry point of a program in which main is called (fix f929eb7 of /repo):
     def main<n>(params) : ret { main(params) }          [entry_fdef d nm]
   satisfies the typing guard [tg] in the scope of main's parameters whenever main itself satisfies the
   parameter clauses of [def_tyguard] (distinct parameters of declared types), main is the definition found
   under its name, and some call of the program targets main (the call clause of [tg]).
   Used by Proof/Fun2CoreTyProg.v (typing of the entry group) and Proof/Fun2CoreTyTotal.v (totality). *)
From Coq Require Import List ZArith NArith String Bool Lia.
From SCC Require Import Base.Sexp Lang.SynUtil Lang.FunSyn Lang.FunTy Lang.CoreSyn.
From SCC Require Import Sem.AxSem Sem.FunSem Sem.FsCheck Sem.CoreCheck Model.Fun2Core Model.Fun2CoreGuard Model.Fun2CoreTyGuard.
From SCC Require Import Proof.Fun2CoreProof Proof.Fun2CoreTfv Proof.Fun2CoreInv Proof.Fun2CoreProg Proof.CoreTyRules
     Proof.Fun2CoreTyBase.
Import ListNotations.
Open Scope string_scope.
Open Scope list_scope.

Lemma find_def_nodup : forall p d, NoDup (map fdname (fcpdefs p)) -> In d (fcpdefs p) -> ffind_def p (fdname d) = Some d.
Proof.
  intros p d. unfold ffind_def. induction (fcpdefs p) as [|d0 r IH]; intros Hnd Hin; [contradiction|].
  cbn [find]. cbn [map] in Hnd. inversion Hnd as [|? ? Hnot Hnd']; subst.
  destruct (String.eqb (fdname d0) (fdname d)) eqn:E.
  - apply String.eqb_eq in E. destruct Hin as [Hin|Hin]; [subst; reflexivity|].
    exfalso. apply Hnot. rewrite E. apply in_map. exact Hin.
  - destruct Hin as [Hin|Hin]; [subst; rewrite String.eqb_refl in E; discriminate | apply IH; assumption].
Qed.

Section Entry.
  Variable p : fcprog.
  Variables D C : list ctydecl.
  Notation tg := (tg p D C).
  Notation tg_args := (tg_args p D C).
  Notation tyd := (tyd D C).

  Lemma entry_tg_args : forall G, NoDup (cvars G) -> ctx_tyd D C G = true ->
    forall ctx, incl (compile_ctx ctx) G -> tg_args G (entry_args ctx) (compile_ctx ctx) = true.
  Proof.
    intros G Hnd Htd. induction ctx as [|b r IH]; intros Hin; [reflexivity|].
    unfold entry_args. cbn [map compile_ctx]. fold (entry_args r). fold (compile_ctx r).
    change (tg_arg p D C G (FVar (fbvar b) (Some (fbty b)) (Some (fbchi b))) (compile_binding b)
            && tg_args G (entry_args r) (compile_ctx r) = true).
    rewrite IH; [|intros x Hx; apply Hin; right; exact Hx]. rewrite andb_true_r.
    assert (Hb : In (compile_binding b) G) by (apply Hin; left; reflexivity).
    assert (Hl : clookup G (new_id (fbvar b)) = Some (compile_binding b)).
    { apply (clookup_nodup G (compile_binding b) Hnd Hb). }
    assert (Ht : tyd (compile_ty (fbty b)) = true).
    { unfold ctx_tyd in Htd. rewrite forallb_forall in Htd. apply (Htd _ Hb). }
    assert (Hv : var_ok G (fbvar b) (Some (fbty b)) (compile_chi (fbchi b)) = true).
    { unfold var_ok. rewrite gl_clookup, Hl. apply cbinding_eqb_eq. reflexivity. }
    assert (Hh : forall chi, has_ty (FVar (fbvar b) (Some (fbty b)) chi) (compile_ty (fbty b)) = true).
    { intros chi. unfold has_ty, tyo. cbn [fterm_type option_map]. apply ceq_ty_refl. }
    unfold tg_arg, compile_binding. cbn [cbchi cbty]. destruct (fbchi b) eqn:Echi; cbn [compile_chi] in *.
    - cbn [is_cns_var negb andb]. rewrite tg_var. rewrite Hv, Hh, Ht. reflexivity.
    - rewrite Hv, Hh, Ht. reflexivity.
  Qed.

  (* the body of the entry point is typed like any call of main *)
  Lemma entry_tg : forall d nm,
    nodup_str (fvars (fdctx d)) = true -> ctx_tyd D C (compile_ctx (fdctx d)) = true ->
    ffind_def p (fdname d) = Some d -> fdname d = "main" -> calls_main_prog p = true ->
    tyd (compile_ty (fdret d)) = true ->
    tg (compile_ctx (fdctx d)) (fdbody (entry_fdef d nm)) = true.
  Proof.
    intros d nm Hnd Hctd Hfind Hname Hcm Htr. unfold entry_fdef. cbn [fdbody]. fold (entry_args (fdctx d)).
    rewrite tg_call, Hcm, orb_true_r, Hfind. cbn [andb].
    rewrite entry_tg_args; [|rewrite cvars_compile_ctx|exact Hctd|apply incl_refl].
    - rewrite ceq_ty_refl, Htr. reflexivity.
    - apply FinFun.Injective_map_NoDup; [intros x y E; apply new_id_inj; exact E | apply nodup_str_nd0; exact Hnd].
  Qed.
End Entry.
