(* Induction principles for the mutually recursive Core syntax (nested lists handled with Forall),
   and small list / boolean lemmas shared by the C03 proofs. *)
From Coq Require Import List ZArith NArith String Bool Lia.
From SCC Require Import Base.Sexp Lang.CoreSyn Model.Backend Model.Uniquify Model.FocusCheck.
Import ListNotations.
Open Scope list_scope.

Definition optP {X} (P : X -> Prop) (o : option X) : Prop := match o with Some x => P x | None => True end.

Section CoreInd.
  Variables (Pt : cterm -> Prop) (Pa : carg -> Prop) (Pc : cclause -> Prop) (Ps : cstmt -> Prop).
  Hypotheses
    (HXVar : forall c v t, Pt (CXVar c v t))
    (HLit : forall n, Pt (CLit n))
    (HOp : forall a o b, Pt a -> Pt b -> Pt (COp a o b))
    (HMu : forall c v s t, Ps s -> Pt (CMu c v s t))
    (HXtor : forall c x args t, Forall Pa args -> Pt (CXtor c x args t))
    (HXCase : forall c cls t, Forall Pc cls -> Pt (CXCase c cls t))
    (HProd : forall p, Pt p -> Pa (CProducer p))
    (HCons : forall k, Pt k -> Pa (CConsumer k))
    (HClause : forall c x ctx b, Ps b -> Pc (CClause c x ctx b))
    (HCut : forall p t k, Pt p -> Pt k -> Ps (CCut p t k))
    (HIfC : forall so a b t e, Pt a -> optP Pt b -> Ps t -> Ps e -> Ps (CIfC so a b t e))
    (HPrint : forall nl a next, Pt a -> Ps next -> Ps (CPrint nl a next))
    (HCall : forall f args t, Forall Pa args -> Ps (CCall f args t))
    (HExit : forall a t, Pt a -> Ps (CExit a t)).

  Fixpoint cterm_ind' (t : cterm) : Pt t :=
    match t with
    | CXVar c v ty => HXVar c v ty
    | CLit n => HLit n
    | COp a o b => HOp a o b (cterm_ind' a) (cterm_ind' b)
    | CMu c v s ty => HMu c v s ty (cstmt_ind' s)
    | CXtor c x args ty =>
        HXtor c x args ty
          ((fix go (l : list carg) : Forall Pa l :=
              match l with [] => Forall_nil _ | y :: r => Forall_cons y (carg_ind' y) (go r) end) args)
    | CXCase c cls ty =>
        HXCase c cls ty
          ((fix go (l : list cclause) : Forall Pc l :=
              match l with [] => Forall_nil _ | y :: r => Forall_cons y (cclause_ind' y) (go r) end) cls)
    end
  with carg_ind' (a : carg) : Pa a :=
    match a with
    | CProducer p => HProd p (cterm_ind' p)
    | CConsumer k => HCons k (cterm_ind' k)
    end
  with cclause_ind' (cl : cclause) : Pc cl :=
    match cl with CClause c x ctx b => HClause c x ctx b (cstmt_ind' b) end
  with cstmt_ind' (s : cstmt) : Ps s :=
    match s with
    | CCut p ty k => HCut p ty k (cterm_ind' p) (cterm_ind' k)
    | CIfC so a b t e =>
        HIfC so a b t e (cterm_ind' a)
          (match b as b0 return optP Pt b0 with
           | Some b1 => cterm_ind' b1
           | None => I
           end)
          (cstmt_ind' t) (cstmt_ind' e)
    | CPrint nl a next => HPrint nl a next (cterm_ind' a) (cstmt_ind' next)
    | CCall f args ty =>
        HCall f args ty
          ((fix go (l : list carg) : Forall Pa l :=
              match l with [] => Forall_nil _ | y :: r => Forall_cons y (carg_ind' y) (go r) end) args)
    | CExit a ty => HExit a ty (cterm_ind' a)
    end.

  Lemma core_mutind :
    (forall t, Pt t) /\ (forall a, Pa a) /\ (forall c, Pc c) /\ (forall s, Ps s).
  Proof. repeat split; [apply cterm_ind' | apply carg_ind' | apply cclause_ind' | apply cstmt_ind']. Qed.
End CoreInd.

Section FsInd.
  Variables (Pt : fsterm -> Prop) (Pc : fsclause -> Prop) (Ps : fsstmt -> Prop).
  Hypotheses
    (HXVar : forall c v t, Pt (FsXVar c v t))
    (HLit : forall n, Pt (FsLit n))
    (HOp : forall a o b, Pt (FsOp a o b))
    (HMu : forall c v s t, Ps s -> Pt (FsMu c v s t))
    (HXtor : forall c x args t, Pt (FsXtor c x args t))
    (HXCase : forall c cls t, Forall Pc cls -> Pt (FsXCase c cls t))
    (HClause : forall c x ctx b, Ps b -> Pc (FsClause c x ctx b))
    (HCut : forall p t k, Pt p -> Pt k -> Ps (FsCut p t k))
    (HIfC : forall so a b t e, Ps t -> Ps e -> Ps (FsIfC so a b t e))
    (HPrint : forall nl a next, Ps next -> Ps (FsPrint nl a next))
    (HCall : forall f args, Ps (FsCall f args))
    (HExit : forall a, Ps (FsExit a)).

  Fixpoint fsterm_ind' (t : fsterm) : Pt t :=
    match t with
    | FsXVar c v ty => HXVar c v ty
    | FsLit n => HLit n
    | FsOp a o b => HOp a o b
    | FsMu c v s ty => HMu c v s ty (fsstmt_ind' s)
    | FsXtor c x args ty => HXtor c x args ty
    | FsXCase c cls ty =>
        HXCase c cls ty
          ((fix go (l : list fsclause) : Forall Pc l :=
              match l with [] => Forall_nil _ | y :: r => Forall_cons y (fsclause_ind' y) (go r) end) cls)
    end
  with fsclause_ind' (cl : fsclause) : Pc cl :=
    match cl with FsClause c x ctx b => HClause c x ctx b (fsstmt_ind' b) end
  with fsstmt_ind' (s : fsstmt) : Ps s :=
    match s with
    | FsCut p ty k => HCut p ty k (fsterm_ind' p) (fsterm_ind' k)
    | FsIfC so a b t e => HIfC so a b t e (fsstmt_ind' t) (fsstmt_ind' e)
    | FsPrint nl a next => HPrint nl a next (fsstmt_ind' next)
    | FsCall f args => HCall f args
    | FsExit a => HExit a
    end.

  Lemma fs_mutind : (forall t, Pt t) /\ (forall c, Pc c) /\ (forall s, Ps s).
  Proof. repeat split; [apply fsterm_ind' | apply fsclause_ind' | apply fsstmt_ind']. Qed.
End FsInd.

Ltac bsplit :=
  repeat match goal with
         | H : _ && _ = true |- _ => apply andb_true_iff in H; destruct H
         | |- _ && _ = true => apply andb_true_iff; split
         end.

(* equality of Core identifiers (name and id) *)
Lemma cident_eqb_eq : forall a b, cident_eqb a b = true <-> a = b.
Proof.
  intros [a1 a2] [b1 b2]. unfold cident_eqb. simpl. rewrite andb_true_iff, String.eqb_eq, N.eqb_eq.
  split; [intros [-> ->]; reflexivity | intros H; inversion H; auto].
Qed.
Lemma cident_eqb_refl : forall a, cident_eqb a a = true.
Proof. intros a. apply cident_eqb_eq. reflexivity. Qed.
Lemma cident_eqb_neq : forall a b, cident_eqb a b = false <-> a <> b.
Proof. intros a b. rewrite <- cident_eqb_eq. destruct (cident_eqb a b); split; congruence. Qed.

Lemma memN_In : forall x l, memN x l = true <-> In x l.
Proof.
  intros x l; unfold memN; rewrite existsb_exists; split.
  - intros (y & Hy & E). apply N.eqb_eq in E. subst; auto.
  - intros H; exists x; split; auto. apply N.eqb_refl.
Qed.
Lemma memN_false : forall x l, memN x l = false <-> ~ In x l.
Proof.
  intros x l. rewrite <- memN_In. destruct (memN x l); split; intros; congruence.
Qed.
Lemma nodupN_NoDup : forall l, nodupN l = true <-> NoDup l.
Proof.
  induction l as [|x l IH]; simpl.
  - split; auto using NoDup_nil.
  - rewrite andb_true_iff, negb_true_iff, memN_false, IH. split.
    + intros [A B]; constructor; auto.
    + intros H; inversion H; auto.
Qed.

Lemma NoDup_app_iff : forall (X : Type) (l1 l2 : list X),
  NoDup (l1 ++ l2) <-> NoDup l1 /\ NoDup l2 /\ (forall x, In x l1 -> In x l2 -> False).
Proof.
  induction l1 as [|a l1 IH]; simpl; intros l2.
  - split; [intros H; repeat split; auto using NoDup_nil; tauto | tauto].
  - split.
    + intros H; inversion H as [|? ? Hn Hd]; subst. apply IH in Hd. destruct Hd as (A & B & C).
      repeat split; auto.
      * constructor; auto. intro; apply Hn; apply in_or_app; auto.
      * intros x [E|Hx] Hx2; [subst; apply Hn; apply in_or_app; auto | eauto].
    + intros (A & B & C). inversion A as [|? ? Hn Hd]; subst. constructor.
      * intro Hin; apply in_app_or in Hin; destruct Hin; [auto | eapply C; eauto].
      * apply IH; repeat split; auto. intros; eapply C; eauto.
Qed.

Lemma in_nonzero : forall x l, In x (nonzero l) <-> In x l /\ x <> 0%N.
Proof.
  intros; unfold nonzero; rewrite filter_In, negb_true_iff, N.eqb_neq; tauto.
Qed.
Lemma nonzero_app : forall l1 l2, nonzero (l1 ++ l2) = nonzero l1 ++ nonzero l2.
Proof. intros; unfold nonzero; apply filter_app. Qed.

Lemma rbind_ok : forall X Y (r : res X) (f : X -> res Y) y,
  rbind r f = Ok y -> exists x, r = Ok x /\ f x = Ok y.
Proof. intros X Y [x|m] f y H; simpl in H; [eauto | discriminate]. Qed.
