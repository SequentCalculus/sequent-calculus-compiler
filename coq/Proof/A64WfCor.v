(* C07 without the two hypotheses that were only CHECKED on the emitted code (`asm_wf cs = None`,
   `code_small cs = true`): both are theorems (Proof/A64WfProg.v) under boolean guards on the PROGRAM handed to the
   code generator (Sem/WfGuard64.v):
     labels_guard      the label texts are unambiguous (known finding label-collision-name-digits outside it)
     (no bound on the xtors of a type: the table dispatch synthesises the offset 4k in TEMP2 when it does not fit the
     12-bit immediate of ADD; tags_i64 - fewer than 2^61 xtors - stays a hypothesis of C07)
     reach_guard_a64   28 + cg_fine_defs 14 74 < 262143 instructions (two-weight size bound, Proof/SizeA64Fine.v): every
                       B.cond / ADR target within +-1 MiB (a real limit of the back end), and the code fits the image
   `calls_guard` follows from the linear discipline (Proof/X86WfCor.lin_check_calls_guard). *)
From Coq Require Import List ZArith NArith String Bool Lia.
From SCC Require Import Lang.AxSyn Sem.AxSem Model.Backend Model.A64 Sem.A64Sem Sem.A64Wf Model.Linearize
     Model.LinCheck Proof.LinearizeProof Proof.SimFrag Proof.X86HAnn Proof.A64HSimTop Proof.A64HSimCor
     Proof.A64HSimExample Proof.A64HSimExampleW Sem.LabelGuard Sem.WfGuard64 Proof.A64WfProg Proof.WideType
     Proof.AxHeapExample Proof.Fun2CoreExamples.
From SCC Require Model.Heap Proof.AxHeapTyping Proof.X86HSimTop Proof.X86HSimExample Proof.X86WfCor.
Import ListNotations.
Local Open Scope list_scope.
Open Scope Z_scope.

Theorem a64_codegen_simulates_wf p lc cs n lc' args fuel o :
  lin_check_prog p = true -> ann_check_prog p = true -> AxHeapTyping.entry_ext p = true ->
  plain_names p = true -> plain_types p = true -> lits_i64 p = true -> tags_i64 p = true ->
  labels_guard p = true -> reach_guard_a64 p = true ->
  a64_compile p lc = Ok (cs, n, lc') ->
  List.length args = n -> args_i64 args = true -> heap_fits p args ->
  run_linear fuel p args = o -> snd o <> OOutOfFuel ->
  exists outer inner, fst (run_a64 outer inner cs args) = o.
Proof.
  intros LIN ANN EE PN PT LI TG LG RG XC.
  apply (a64_codegen_simulates p lc cs n lc' args fuel o LIN ANN EE PN PT LI TG XC).
  - exact (a64_compile_asm_wf p lc cs n lc' LG LIN PN PT RG XC).
  - exact (a64_compile_code_small_reach p lc cs n lc' LIN RG XC).
Qed.

Corollary a64_codegen_correct_linearized_wf a lc cs n lc' args fuel o :
  prog_ok a = true ->
  AxHeapTyping.entry_ext (linearize a) = true -> plain_names (linearize a) = true -> plain_types (linearize a) = true ->
  lits_i64 (linearize a) = true -> tags_i64 (linearize a) = true ->
  labels_guard (linearize a) = true -> reach_guard_a64 (linearize a) = true ->
  a64_compile (linearize a) lc = Ok (cs, n, lc') ->
  args_i64 args = true -> heap_fits (linearize a) args ->
  run_linear fuel (linearize a) args = o -> defined o = true ->
  exists outer inner, fst (run_a64 outer inner cs args) = o.
Proof.
  intros OK EE PN PT LI TG LG RG XC. pose proof (linearize_exact a OK) as LIN.
  apply (a64_codegen_correct_linearized a lc cs n lc' args fuel o OK EE PN PT LI TG XC).
  - exact (a64_compile_asm_wf _ lc cs n lc' LG LIN PN PT RG XC).
  - exact (a64_compile_code_small_reach _ lc cs n lc' LIN RG XC).
Qed.

(* the hypotheses are satisfiable: the two heap examples of C07 and the linearized stage outputs of the five example
   programs of C01 pass every guard *)
Lemma hx_lin_guards_a64 :
  labels_guard hx_lin = true /\ reach_guard_a64 hx_lin = true /\
  labels_guard hxw_lin = true /\ reach_guard_a64 hxw_lin = true.
Proof. vm_compute. repeat split; reflexivity. Qed.
Lemma wf_guard_a64_examples :
  wf_guard_a64 (X86WfCor.lin_of ex_calls) = true /\ wf_guard_a64 (X86WfCor.lin_of ex_shared) = true /\
  wf_guard_a64 (X86WfCor.lin_of ex_data) = true /\ wf_guard_a64 (X86WfCor.lin_of ex_labels) = true /\
  wf_guard_a64 (X86WfCor.lin_of ex_codata) = true /\ wf_guard_a64 hx_lin = true /\ wf_guard_a64 hxw_lin = true.
Proof. vm_compute. repeat split; reflexivity. Qed.

(* the theorem applied to the heap example (Proof/A64HSimExample.v), without evaluating asm_wf on the code *)
Lemma hxa_simulated_wf : exists outer inner, fst (run_a64 outer inner hxa_code [3; 100]) = run_linear 2000 hx_lin [3; 100].
Proof.
  pose proof hxa_hypotheses as HH. pose proof hx_lin_guards_a64 as GG.
  destruct HH as (H1 & H2 & H3 & H4 & H5 & HL & HT & (lc' & H6) & H7 & H8 & HA & H9). destruct GG as (G1 & G3 & _).
  refine (a64_codegen_simulates_wf hx_lin 0 hxa_code 2 lc' [3; 100] 2000 _ H1 H2 H3 H4 H5 HL HT G1 G3 H6 eq_refl HA
            (fits_run_sound 2000 _ _ H9) eq_refl _).
  vm_compute. discriminate.
Qed.

(* ---------- regression: the table dispatch beyond 1023 xtors ----------
   A type with 1026 destructors, invoke of the last one (the stage-level form of the finding "tag dispatch immediate",
   docs/C14.md: `codata Big { d0, ..., d1099 }`, `def use(o: Big): i64 { o.d1099 }` was accepted by the front end and
   `ADD X7, X7, 4396` rejected by the assembler).  The code generator BEFORE the repair (old_a_add_and_jump) emits
   `ADD X5, X5, #4100` and fails asm_wf although the program satisfies every hypothesis of the theorem; the repaired one
   synthesises the offset in X3 and passes. *)
Definition old_a64_backend : backend acode atemp := {|
  b_label := b_label a64_backend; b_mark := b_mark a64_backend; b_jump := b_jump a64_backend;
  b_jump_label := b_jump_label a64_backend; b_jump_label_fixed := b_jump_label_fixed a64_backend;
  b_jcc2 := b_jcc2 a64_backend; b_jcc1 := b_jcc1 a64_backend;
  b_load_immediate := b_load_immediate a64_backend; b_load_label := b_load_label a64_backend;
  b_add_and_jump := old_a_add_and_jump;
  b_arith := b_arith a64_backend; b_mov := b_mov a64_backend; b_print := b_print a64_backend;
  b_erase := b_erase a64_backend; b_share_n := b_share_n a64_backend; b_store := b_store a64_backend; b_load := b_load a64_backend;
  b_contains_spill_edge := b_contains_spill_edge a64_backend;
  b_store_temporary := b_store_temporary a64_backend; b_restore_temporary := b_restore_temporary a64_backend;
  b_temp := b_temp a64_backend; b_return1 := b_return1 a64_backend; b_jump_length := b_jump_length a64_backend;
  b_temporary_from_position := b_temporary_from_position a64_backend; b_tcompare := b_tcompare a64_backend |}.
Definition old_a64_compile (p : prog) (lc : N) : Backend.res (list acode * nat * N) :=
  Backend.rbind (compile old_a64_backend p lc) (fun c => let '(is, n, lc') := c in
  Backend.rbind (into_aarch64_routine is n) (fun r => Backend.Ok (r, n, lc'))).
Definition many_xtors (n : nat) : list xtorsig := map (fun k => mkx ("d"%string, N.of_nat k) []) (seq 0 n).
Definition wide_type_prog (n : nat) : prog :=
  let big : ident := ("Big"%string, 0%N) in
  let o : ident := ("o"%string, 1%N) in
  mkp [mkd ("use"%string, 0%N) [mkb o Cns (Decl big)] (Invoke o ("d"%string, N.of_nat (n - 1)) (Decl big) [])]
      [mkt big (many_xtors n)] 1%N.
Lemma asm_wf_xtors_regression :
  let p := wide_type_prog 1026 in
  wf_guard_a64 p = true /\ old_imm_guard_a64 p = false /\
  (exists cs n lc', old_a64_compile p 0 = Backend.Ok (cs, n, lc') /\
     asm_wf cs = Some "operand not encodable in its instruction form"%string /\
     In (ADDI (X 5) (X 5) 4100) cs) /\
  (exists cs n lc', a64_compile p 0 = Backend.Ok (cs, n, lc') /\ asm_wf cs = None /\
     In (MOVZ (X 3) 4100 0) cs /\ In (ADD (X 5) (X 5) (X 3)) cs).
Proof.
  (* evaluated on the list that counts in binary (Proof/WideType.v): `N.of_nat k` for every k is quadratic without the VM *)
  cbv zeta. unfold wide_type_prog, many_xtors. rewrite xtors_from_seq.
  split; [vm_compute; reflexivity|]. split; [vm_compute; reflexivity|]. split.
  - eexists _, _, _. split; [vm_compute; reflexivity|]. split; [vm_compute; reflexivity|].
    vm_compute. repeat (first [left; reflexivity|right]).
  - eexists _, _, _. split; [vm_compute; reflexivity|]. split; [vm_compute; reflexivity|].
    split; vm_compute; repeat (first [left; reflexivity|right]).
Qed.
