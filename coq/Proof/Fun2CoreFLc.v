(* Proof/Fun2CoreFLc  -  statement of the fundamental lemma of the simulation ([flw] for
   compile_with_cont, [flc] / [flt] for compile at data / codata kinds), with the side conditions on the
   translation state ([lifted_ok], [Gused], [names_in]) and on callable definitions ([callee_ok]); first building
   blocks: producers compiled by the default method, argument lists ([args_sim]). *)
From Coq Require Import List ZArith NArith String Bool Lia.
From SCC Require Import Proof.CoreInd.
From SCC Require Import Base.Sexp Lang.SynUtil Lang.FunSyn Lang.FunTy Lang.CoreSyn.
From SCC Require Import Sem.AxSem Sem.CoreSem Sem.FunSem Model.Fun2Core.
From SCC Require Import Proof.Fun2CoreProof Proof.Fun2CoreSim Proof.Fun2CoreTfv Proof.Fun2CoreInv Proof.Fun2CoreUB
     Proof.Fun2CoreRel Proof.Fun2CoreFLa Proof.Fun2CoreFLb.
Import ListNotations.
Open Scope string_scope.
Open Scope list_scope.

Definition Sof (bs : bset) : cident -> Prop := fun x => In x (cnames bs).

Lemma rev_append_nil_twice : forall X (l : list X), rev_append (rev_append l []) [] = l.
Proof. intros X l. rewrite !rev_append_rev, !app_nil_r. apply rev_involutive. Qed.
Lemma Forall2_rev_append : forall X Y (R : X -> Y -> Prop) l l' a a',
  Forall2 R l l' -> Forall2 R a a' -> Forall2 R (rev_append l a) (rev_append l' a').
Proof.
  intros X Y R l l' a a' H. revert a a'. induction H as [|x y r r' Hxy Hr IH]; intros a a' Ha; simpl; [exact Ha|].
  apply IH. constructor; assumption.
Qed.
Lemma cbind_snoc : forall xs vs y w e ce1, cbind xs vs ((y, w) :: e) = Some ce1 -> cbind (xs ++ [y]) (vs ++ [w]) e = Some ce1.
Proof.
  induction xs as [|x r IH]; intros vs y w e ce1 H; destruct vs as [|v vr]; simpl in *; try discriminate.
  - exact H.
  - destruct (cbind r vr ((y, w) :: e)) as [e0|] eqn:E; [|discriminate]. rewrite (IH _ _ _ _ _ E). exact H.
Qed.
Lemma fchi_list_eqb_eq : forall a b, list_eqb fchi_eqb a b = true -> a = b.
Proof.
  induction a as [|x a IH]; intros [|y b]; simpl; intros H; try discriminate; [reflexivity|].
  apply andb_prop in H. destruct H as [H1 H2]. apply IH in H2. subst.
  destruct x, y; simpl in H1; try discriminate; reflexivity.
Qed.

Section FLc.
  Variable p : fcprog.
  Variable cp : cprog.
  Hypothesis Hcod : cpcodata cp = codata_of p.

  (* The side conditions of the fundamental lemma on the translation state.  [lifted_ok st]: the definitions lifted so far
     are definitions of the compiled program (asked of the FINAL state; it goes backwards along [grows]).
     [Gused G st], [names_in l st]: the names of the scope / of the continuation are new_id of names in used_vars, so a
     variable drawn later differs from them (these go forwards along [grows]). *)
  Definition lifted_ok (st : cstate) : Prop :=
    forall d, In d (st_lifted st) -> cfind_def cp (cdname d) = Some d.
  Definition Gused (G : list cbinding) (st : cstate) : Prop :=
    forall bb, In bb G -> exists x, cbvar bb = new_id x /\ In x (st_used_vars st).
  Definition names_in (l : list cident) (st : cstate) : Prop :=
    forall x, In x l -> exists y, x = new_id y /\ In y (st_used_vars st).

  Lemma lifted_ok_grows : forall st st', lifted_ok st' -> grows st st' -> lifted_ok st.
  Proof. intros st st' H Hg d Hd. apply H. eapply grows_lifted_incl; eauto. Qed.
  Lemma Gused_grows : forall G st st', Gused G st -> grows st st' -> Gused G st'.
  Proof.
    intros G st st' H Hg bb Hb. destruct (H bb Hb) as [x [E Hx]]. exists x. split; [exact E|].
    eapply grows_vars_incl; eauto.
  Qed.
  Lemma names_in_grows : forall l st st', names_in l st -> grows st st' -> names_in l st'.
  Proof.
    intros l st st' H Hg x Hx. destruct (H x Hx) as [y [E Hy]]. exists y. split; [exact E|].
    eapply grows_vars_incl; eauto.
  Qed.
  Lemma incl_grows : forall l st st', incl l (st_used_vars st) -> grows st st' -> incl l (st_used_vars st').
  Proof. intros l st st' H Hg x Hx. eapply grows_vars_incl; eauto. Qed.

  (* what the compiled program contains for a callable source definition d: its body is the translation of d's body
     against a return covariable a that is used but is neither a binder nor a parameter of d; parameters and binders are
     used names; the lifted definitions and the definition itself (parameters ++ [a]) are found in the program; the body
     satisfies the guard ([frag], [ws] in the scope of the parameters, [kd]) and has the kind of the return type *)
  Definition callee_ok (d : fdef) : Prop :=
    exists a body st st' ty,
      wc (codata_of p) (fdname d) false (fdbody d) (CXVar CCns (new_id a) ty) st = Ok (body, st') /\
      In a (st_used_vars st) /\ ~ In a (bnd (fdbody d)) /\ ~ In a (fvars (fdctx d)) /\
      incl (fvars (fdctx d)) (st_used_vars st) /\ incl (bnd (fdbody d)) (st_used_vars st) /\
      lifted_ok st' /\
      cfind_def cp (new_id (fdname d)) =
        Some (mkcd (new_id (fdname d))
                   (compile_ctx (fdctx d) ++ [mkcb (new_id a) CCns (compile_ty (fdret d))]) body) /\
      frag p (fdbody d) = true /\ ws (compile_ctx (fdctx d)) (fdbody d) = true /\
      kd p (fdbody d) = true /\ tkind p (fdbody d) = f_is_codata p (fdret d).

  (* compile_with_cont: the continuation has the kind of the term *)
  Definition flw (N : nat) (t : fterm) : Prop :=
    forall n, (n <= N)%nat -> forall G cur cont st s st' e ce k,
      wc (codata_of p) cur false t cont st = Ok (s, st') ->
      frag p t = true -> kd p t = true -> ws G t = true ->
      lifted_ok st' -> Gused G st -> incl (bnd t) (st_used_vars st) ->
      names_in (cnames (fvt cont)) st ->
      cont_shape cp (tkind p t) cont ->
      erel p cp n G (Sof (fvs s)) e ce ->
      CK p cp n (tkind p t) k cont ce (Sof (fvs s)) ->
      sim p cp n (FEval t e k) (SNext (Run s ce)).

  (* compile, for a term of a DATA kind in argument position: evaluated, the value handed to the
     machine continuation *)
  Definition flc (N : nat) (t : fterm) : Prop :=
    forall n, (n <= N)%nat -> forall G cur ty st c st' e ce k m,
      cmp (codata_of p) cur false t ty st = Ok (c, st') ->
      frag p t = true -> kd p t = true -> tkind p t = false -> ws G t = true ->
      lifted_ok st' -> Gused G st -> incl (bnd t) (st_used_vars st) ->
      is_codata cp ty = false ->
      erel p cp n G (Sof (fvt c)) e ce ->
      Kb p cp n k (KRet m) ->
      sim p cp n (FEval t e k) (SNext (Arg (CProducer c) ce m)).

  (* compile, for a term of a CODATA kind: not evaluated; the producer denotes, in one machine step, a
     by-name value that is related to the source thunk of the term *)
  Definition flt (N : nat) (t : fterm) : Prop :=
    forall n, (n <= N)%nat -> forall G cur ty st c st' e ce,
      cmp (codata_of p) cur false t ty st = Ok (c, st') ->
      frag p t = true -> kd p t = true -> tkind p t = true -> ws G t = true ->
      lifted_ok st' -> Gused G st -> incl (bnd t) (st_used_vars st) ->
      is_codata cp ty = true ->
      erel p cp n G (Sof (fvt c)) e ce ->
      exists pv,
        (forall m, cstep cp (Arg (CProducer c) ce m) = SNext (App m (BP pv))) /\
        (forall v s ty', cstep cp (Run (CCut c ty (CMu CCns v s ty')) ce) = SNext (Run s ((v, BP pv) :: ce))) /\
        (forall cd tag vals, cut_with_k cd c ce (KDtor tag vals) = interact_val pv (KDtor tag vals)) /\
        Co p cp n (FvThunk t e) pv /\
        (forall y ty0 chi, t = FVar y ty0 chi ->
           exists val, flookup e y = Some (FbP val) /\ vrel p cp n val pv /\ cval val).

  (* producers compiled by the default method: mu a. [[t]]_a *)
  Lemma CK_covar : forall n c k a ty kv ce (S : cident -> Prop),
    clookup ce (new_id a) = Some (BK kv) -> Kk p cp n c k kv ->
    CK p cp n c k (CXVar CCns (new_id a) ty) ce S.
  Proof.
    intros n c k a ty kv ce S Hl Hk. split.
    - intros bb Hb _. apply fvt_var in Hb. subst bb. simpl. exists (BK kv). split; [exact Hl | reflexivity].
    - intros _ ce' Ha. exists kv. split; [|exact Hk]. simpl.
      rewrite (Ha (new_id a)); [rewrite Hl; reflexivity|]. simpl. left. reflexivity.
  Qed.

  (* after a fresh covariable a has been drawn and bound to kv ~ k: the side conditions of flw for the continuation a *)
  Lemma fresh_covar_cont : forall n G l st a sta ty e ce k kv c (S S' : cident -> Prop),
    fresh_covar st = Ok (a, sta) -> Gused G st -> incl l (st_used_vars st) ->
    erel p cp n G S e ce -> (forall x, S' x -> x <> new_id a -> S x) -> Kk p cp n c k kv ->
    Gused G sta /\ incl l (st_used_vars sta) /\ names_in (cnames (fvt (CXVar CCns (new_id a) ty))) sta /\
    erel p cp n G S' e ((new_id a, BK kv) :: ce) /\
    CK p cp n c k (CXVar CCns (new_id a) ty) ((new_id a, BK kv) :: ce) S'.
  Proof.
    intros n G l st a sta ty e ce k kv c S S' Ha HG Hb He HS HK.
    destruct (fresh_in_vars_inv _ _ _ _ Ha) as [Hfresh [Hused _]].
    assert (Hgr : grows st sta) by (eapply mgrows_fresh_covar; exact Ha).
    split; [eapply Gused_grows; eauto|]. split; [eapply incl_grows; eauto|]. split; [|split].
    - intros x Hx. simpl in Hx. destruct Hx as [Hx|[]]. subst x.
      exists a. split; [reflexivity|]. rewrite Hused. left. reflexivity.
    - eapply erel_gen; [exact He | | exact HS].
      intros bb Hbb E. destruct (HG bb Hbb) as [x [Ex Hx]]. rewrite Ex in E. apply new_id_inj in E. subst x. exact (Hfresh Hx).
    - apply CK_covar with (kv := kv); [|exact HK]. rewrite clookup_cons, cident_eqb_refl. reflexivity.
  Qed.

  (* the body of a default producer, at either kind *)
  Lemma default_body : forall N t, flw N t ->
    forall n, (n <= N)%nat -> forall G cur ty st a sta s st' e ce k kv,
    fresh_covar st = Ok (a, sta) -> wc (codata_of p) cur false t (CXVar CCns (new_id a) ty) sta = Ok (s, st') ->
    frag p t = true -> kd p t = true -> ws G t = true ->
    lifted_ok st' -> Gused G st -> incl (bnd t) (st_used_vars st) ->
    erel p cp n G (Sof (fvt (CMu CPrd (new_id a) s ty))) e ce ->
    Kk p cp n (tkind p t) k kv ->
    sim p cp n (FEval t e k) (SNext (Run s ((new_id a, BK kv) :: ce))).
  Proof.
    intros N t H n Hn G cur ty st a sta s st' e ce k kv Ha Hs Hf Hkd Hw Hl HG Hb He HK.
    destruct (fresh_covar_cont n G (bnd t) st a sta ty e ce k kv (tkind p t) _ (Sof (fvs s)) Ha HG Hb He)
      as [A [B [C [D E]]]]; [intros x Hx Hne; apply mu_body_names; assumption | exact HK|].
    exact (H n Hn G cur _ sta s st' e _ k Hs Hf Hkd Hw Hl A B C I D E).
  Qed.

  Lemma flc_default : forall N t, stmt_form t = true -> flw N t -> flc N t.
  Proof.
    intros N t Hs H n Hn G cur ty st c st' e ce k m Hc Hf Hkd Hk0 Hw Hl HG Hb Hty He HK.
    rewrite (cmp_stmt_form _ _ _ _ _ Hs) in Hc. apply default_compile_inv in Hc. destruct Hc as [a [sta [s [Ha [Hws Ec]]]]]. subst c.
    apply sim_cstep. simpl. rewrite Hty.
    eapply (default_body N t H n Hn G cur ty st a sta s st' e ce k (KRet m)); eauto.
    rewrite Hk0. exact HK.
  Qed.

  (* the thunk of a codata-kind term compiled by the default method *)
  Lemma flt_default : forall N t, stmt_form t = true -> flw N t -> flt N t.
  Proof.
    intros N t Hs H n Hn G cur ty st c st' e ce Hc Hf Hkd Hk1 Hw Hl HG Hb Hty He.
    rewrite (cmp_stmt_form _ _ _ _ _ Hs) in Hc. apply default_compile_inv in Hc. destruct Hc as [a [sta [s [Ha [Hws Ec]]]]]. subst c.
    exists (PThunk (new_id a) s ce). split; [|split; [|split; [|split]]].
    - intros m. simpl. rewrite Hty. reflexivity.
    - intros v s0 ty'. simpl. rewrite Hty. reflexivity.
    - intros cd tag vals. simpl. destruct cd; reflexivity.
    - apply Co_intro. intros j Hj x args args' k kv Hargs Hd Hk.
      eapply sim_fstep; [reflexivity|]. simpl interact_val.
      eapply (default_body N t H j ltac:(lia) G cur ty st a sta s st' e ce); eauto.
      + eapply erel_mono; [exact He | lia].
      + rewrite Hk1. apply Kk_dtor; assumption.
    - intros y ty0 chi E. subst t. discriminate Hs.
  Qed.

  Lemma fstep_args_eval : forall y r done e f k,
    match y with FVar _ _ (Some FCns) => False | _ => True end -> tkind p y = false ->
    fstep p (FArgs done (y :: r) e f k) = FNext (FEval y e (FkArgs done r e f k)).
  Proof.
    intros y r done e f k Hn Hd. unfold tkind in Hd.
    destruct y; simpl in *; try (rewrite Hd; reflexivity); try reflexivity.
    destruct chi as [[|]|]; try contradiction; rewrite Hd; reflexivity.
  Qed.
  Lemma fstep_args_thunk : forall y r done e f k,
    match y with FVar _ _ _ => False | _ => True end -> tkind p y = true ->
    fstep p (FArgs done (y :: r) e f k) = FNext (FArgs (FbP (FvThunk y e) :: done) r e f k).
  Proof.
    intros y r done e f k Hn Hd. unfold tkind in Hd.
    destruct y; simpl in *; try contradiction; try (rewrite Hd; reflexivity); try discriminate Hd.
  Qed.
  Lemma fstep_args_covar : forall v ty chi r done e f k val,
    chi <> Some FCns -> f_is_codata_o p ty = true -> flookup e v = Some (FbP val) ->
    fstep p (FArgs done (FVar v ty chi :: r) e f k) = FNext (FArgs (FbP val :: done) r e f k).
  Proof.
    intros v ty chi r done e f k val Hn Hd El. simpl.
    destruct chi as [[|]|]; try congruence; rewrite Hd, El; reflexivity.
  Qed.

  Definition okb (po : bool) (y : fterm) (b : fbv) : Prop := if po then dfield b else vok (tkind p y) b.

  Lemma args_sim : forall N args, Forall (flc N) args -> Forall (flt N) args ->
    forall n, (n <= N)%nat -> forall po G cur st l st' e ce tail f fin k done done',
    subst_with (fun y => cmp (codata_of p) cur false y) args st = Ok (l, st') ->
    forallb (arg_ok p) args = true -> forallb (arg_kd p) args = true ->
    (po = true -> forallb (fun y => negb (is_cns_var y) && negb (tkind p y)) args = true) ->
    forallb (ws_arg G) args = true ->
    lifted_ok st' -> Gused G st -> incl (flat_map bnd args) (st_used_vars st) ->
    erel p cp n G (Sof (fva l)) e ce ->
    (forall j, (j <= n)%nat -> forall new new', Forall2 (brel p cp j) new new' ->
       Forall2 (fun b y => okb po y b /\ fkind b = compile_chi (arg_chi y)) new args ->
       sim p cp j (FArgs (rev_append new done) [] e f k) (cargs_res cp (rev_append new' done') tail ce fin)) ->
    sim p cp n (FArgs done args e f k) (cargs_res cp done' (l ++ tail) ce fin).
  Proof.
    intros N args HA HT. revert HT. induction HA as [|y r Hy Hr IH]; intros HT;
      intros n Hn po G cur st l st' e ce tail f fin k done done' Hs Hf Hkd Hpo Hw Hl HG Hb He Hfin.
    - simpl in Hs. apply mret_inv in Hs. destruct Hs; subst. simpl. apply (Hfin n (Nat.le_refl n) [] []); constructor.
    - inversion HT as [|? ? Hty Htr]; subst.
      apply subst_with_cons_inv in Hs. destruct Hs as [a [st1 [rest [Ha [Hrest El]]]]]. subst l.
      simpl in Hf, Hkd, Hw. apply andb_prop in Hf. destruct Hf as [Hf1 Hf2]. apply andb_prop in Hw. destruct Hw as [Hw1 Hw2].
      apply andb_prop in Hkd. destruct Hkd as [Hkd1 Hkd2].
      assert (Hg1 : grows st st1).
      { unfold compile_arg in Ha. revert Ha. apply mgrows_compile_arg. intros ty.
        apply (proj2 (wc_cmp_grows (codata_of p) cur false y)). }
      assert (Hgr : grows st1 st') by (eapply subst_with_grows; exact Hrest).
      assert (Hb1 : incl (bnd y) (st_used_vars st)) by (intros z Hz; apply Hb; simpl; apply in_or_app; left; exact Hz).
      assert (Hb2 : incl (flat_map bnd r) (st_used_vars st1)).
      { eapply incl_grows; [|exact Hg1]. intros z Hz. apply Hb. simpl. apply in_or_app. right. exact Hz. }
      assert (He2 : forall j, (j <= n)%nat -> erel p cp j G (Sof (fva rest)) e ce).
      { intros j Hj. eapply erel_weaken; [exact He | | exact Hj]. intros x Hx. unfold Sof in *.
        apply in_cnames_inv in Hx. destruct Hx as [bb [Hbb E]]. subst x. apply in_cnames. apply fva_cons. right. exact Hbb. }
      assert (Hpo2 : po = true -> forallb (fun y0 => negb (is_cns_var y0) && negb (tkind p y0)) r = true).
      { intros E. specialize (Hpo E). simpl in Hpo. apply andb_prop in Hpo. tauto. }
      assert (He1 : forall j c0, a = CProducer c0 -> (j <= n)%nat -> erel p cp j G (Sof (fvt c0)) e ce).
      { intros j c0 E Hj. subst a. eapply erel_weaken; [exact He | | exact Hj]. intros x Hx. unfold Sof in *.
        apply in_cnames_inv in Hx. destruct Hx as [bb [Hbb E]]. subst x. apply in_cnames. apply fva_cons. left. exact Hbb. }
      (* what to do once the argument's value b ~ b' has been pushed *)
      assert (Hnext : forall j b b', (j <= n)%nat -> (j <= N)%nat -> brel p cp j b b' ->
                okb po y b -> fkind b = compile_chi (arg_chi y) ->
                sim p cp j (FArgs (b :: done) r e f k) (cargs_res cp (b' :: done') (rest ++ tail) ce fin)).
      { intros j b b' Hjn HjN Hbb Hok Hkind.
        apply (IH Htr j HjN po G cur st1 rest st' e ce tail f fin k (b :: done) (b' :: done')); auto.
        - eapply Gused_grows; eauto.
        - intros i Hi new new' Hnew Hkinds.
          apply (Hfin i ltac:(lia) (b :: new) (b' :: new')).
          + constructor; [|exact Hnew]. eapply brel_mono; [exact Hbb | lia].
          + constructor; [|exact Hkinds]. split; assumption. }
      simpl app. unfold cargs_res at 1.
      apply compile_arg_inv in Ha. destruct Ha as [[v [ty [ty0 [Ey [Ety [Ea Est]]]]]]|[Hncns [ty0 [c [Ety [Ec Ea]]]]]].
      + (* a covariable: looked up *)
        subst y a st1 ty. simpl in Hw1. unfold ws_arg in Hw1. apply var_ok_inv in Hw1.
        destruct Hw1 as [ty1 [E1 Hg]]. injection E1 as E1. subst ty1.
        destruct (erel_covar p cp n G _ e ce v _ He Hg) as [k0 [kv0 [El [Ec Hk0]]]].
        { unfold Sof. apply (in_cnames (mkcb (new_id v) CCns (compile_ty ty0))). apply fva_cons. left. apply fvt_var. reflexivity. }
        destruct n as [|n1]; [apply sim_zero|].
        eapply sim_fstep; [simpl; rewrite El; reflexivity|].
        apply sim_cstep. simpl. rewrite Ec. apply sim_cstep. rewrite cstep_app_margs.
        assert (Hpof : po = false).
        { destruct po; [|reflexivity]. specialize (Hpo eq_refl). simpl in Hpo. discriminate. }
        apply (Hnext n1 (FbK k0) (BK kv0)); try lia.
        * simpl. eapply Kb_mono; [exact Hk0 | lia].
        * subst po. exact I.
        * reflexivity.
      + subst a. destruct (ws_arg_not_cns p G y Hncns) as [Ew Ef]. rewrite Ew in Hw1. rewrite Ef in Hf1.
        apply andb_prop in Hf1. destruct Hf1 as [Hf1 _].
        assert (Hkdy : kd p y = true).
        { destruct y; try exact Hkd1. reflexivity. }
        assert (Hchi : compile_chi (arg_chi y) = CPrd).
        { destruct y; try reflexivity. destruct chi as [[|]|]; try reflexivity. contradiction. }
        assert (Hcdty : is_codata cp (compile_ty ty0) = tkind p y).
        { rewrite (is_codata_compile p cp Hcod). unfold tkind. rewrite Ety. reflexivity. }
        destruct (tkind p y) eqn:Hk1.
        * (* codata: by name *)
          assert (Hpof : po = false).
          { destruct po; [|reflexivity]. specialize (Hpo eq_refl). simpl in Hpo. rewrite Hk1 in Hpo.
            rewrite andb_false_r in Hpo. discriminate. }
          destruct n as [|n1]; [apply sim_zero|].
          destruct (Hty (S n1) Hn G cur (compile_ty ty0) st c st1 e ce Ec Hf1 Hkdy Hk1 Hw1) as [pv [Harg [_ [_ [HCo Hvar]]]]].
          { eapply lifted_ok_grows; eauto. }
          { exact HG. }
          { exact Hb1. }
          { exact Hcdty. }
          { apply (He1 (S n1) c eq_refl). lia. }
          apply sim_cstep. rewrite Harg. apply sim_cstep. rewrite cstep_app_margs.
          destruct y; try (eapply sim_fstep; [apply fstep_args_thunk; [exact I | exact Hk1]|];
                           apply (Hnext n1 _ (BP pv)); try lia;
                           [simpl; eapply Co_mono; [exact HCo | lia] | subst po; unfold okb, vok; rewrite Hk1; exact I | rewrite Hchi; reflexivity]).
          (* a variable of codata type: its value *)
          destruct (Hvar v ty chi eq_refl) as [val [El [Hv Hcv]]].
          eapply sim_fstep.
          { apply fstep_args_covar with (val := val); [|exact Hk1|exact El]. destruct chi as [[|]|]; try congruence; contradiction. }
          apply (Hnext n1 (FbP val) (BP pv)); try lia.
          -- simpl. eapply vrel_mono; [exact Hv | lia].
          -- subst po. unfold okb, vok. rewrite Hk1. exact Hcv.
          -- rewrite Hchi; reflexivity.
        * (* data: evaluated *)
          destruct n as [|n1]; [apply sim_zero|].
          eapply sim_fstep; [apply fstep_args_eval; assumption|].
          apply (Hy n1 (Nat.lt_le_incl _ _ Hn) G cur (compile_ty ty0) st c st1 e ce _ _ Ec Hf1 Hkdy Hk1 Hw1).
          -- eapply lifted_ok_grows; eauto.
          -- exact HG.
          -- exact Hb1.
          -- exact Hcdty.
          -- apply (He1 n1 c eq_refl). lia.
          -- apply Kb_intro. intros j Hj v pv Hd Hv. rewrite (dval_interact_ret p cp j v pv _ Hd Hv).
             destruct j as [|j1]; [apply sim_zero|].
             eapply sim_fstep; [reflexivity|]. apply sim_cstep. rewrite cstep_app_margs.
             apply (Hnext j1 (FbP v) (BP pv)); try lia.
             ++ simpl. eapply vrel_mono; [exact Hv | lia].
             ++ destruct po; unfold okb, vok; [exact Hd | rewrite Hk1; exact Hd].
             ++ rewrite Hchi; reflexivity.
  Qed.
End FLc.
