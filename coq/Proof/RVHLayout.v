(* C08, heap statements: inversion of `code_statement` for Let / Switch, and where the clauses of a Switch /
   a Create sit in the image (the counterpart of Proof/X86HLayout.v).
     fwd_ok             an indirect jump (`JALR`) to the address of ANY placed instruction lands on the
                        instruction of non-zero size placed at that address, i.e. BEHIND the labels placed
                        there; from the instruction itself control reaches the landing point through the
                        labels, the state unchanged (`mk_image_fwd`);
     rfin_star_inv      so a run from the instruction and a run from the landing point finish alike;
     gclauses           the code of the clauses, generically in the load code and the body context;
     table_entry_k      the address of entry k of a jump table (the dispatch layout itself: Proof/RVKLayout.v). *)
From Coq Require Import List ZArith NArith String Bool Lia FMapPositive.
From SCC Require Import Base.Sexp Lang.AxSyn Sem.AxSem Model.ParMoves Model.Backend Model.RV Sem.RVSem Sem.RVWf
     Model.Linearize Model.LinCheck Generated.Constants Proof.LinBasics
     Proof.RVSel Proof.SubstGraph Proof.SubstBackends Proof.RVSubst Proof.RVSimAddr Proof.BackendInv Proof.RVSimRel Proof.RVSimStmt
     Proof.RVSimClo.
From SCC Require Proof.X86HSimHeapA.
Import ListNotations.
Open Scope Z_scope.
Open Scope list_scope.

(* zero-size instructions (labels) are no-ops *)
Lemma zero_size_step im a c s : isize c = 0 -> step im a c s = Next s.
Proof. destruct c; cbn [isize]; intros H; try lia; try reflexivity. destruct (fits12 c); [lia|]. destruct (fits32 c); lia. Qed.

Lemma size_zero_run (cs : list rcode) : forall d n, (n + d <= List.length cs)%nat ->
  (forall j c, (n <= j < n + d)%nat -> nth_error cs j = Some c -> isize c = 0) ->
  size_of (firstn (n + d) cs) = size_of (firstn n cs).
Proof.
  induction d as [|d IH]; intros n Hl Z; [now rewrite Nat.add_0_r|].
  destruct (nth_error cs (n + d)) as [c|] eqn:Hn; [|apply nth_error_None in Hn; lia].
  replace (n + S d)%nat with (S (n + d)) by lia.
  rewrite (firstn_S_size cs (n + d) c Hn), (Z (n + d)%nat c ltac:(lia) Hn), Z.add_0_r.
  apply IH; [lia|]. intros j cj Hj. apply Z. lia.
Qed.

(* the first instruction of non-zero size at or after position n *)
Lemma first_nz (cs : list rcode) : forall d0 n cd0, nth_error cs (n + d0) = Some cd0 -> isize cd0 <> 0 ->
  exists d cd, nth_error cs (n + d) = Some cd /\ isize cd <> 0 /\
    forall j cj, (n <= j < n + d)%nat -> nth_error cs j = Some cj -> isize cj = 0.
Proof.
  induction d0 as [|d0 IH]; intros n cd0 H NZ.
  - exists O, cd0. split; [exact H|]. split; [exact NZ|]. intros j cj Hj. lia.
  - destruct (nth_error cs n) as [c|] eqn:Hn.
    2:{ apply nth_error_None in Hn. assert (n + S d0 < List.length cs)%nat by (apply nth_error_Some; congruence). lia. }
    destruct (Z.eq_dec (isize c) 0) as [E|E].
    + replace (n + S d0)%nat with (S n + d0)%nat in H by lia.
      destruct (IH (S n) cd0 H NZ) as (d & cd & Hd & NZd & ZR).
      exists (S d), cd. replace (n + S d)%nat with (S n + d)%nat by lia. split; [exact Hd|]. split; [exact NZd|].
      intros j cj Hj Hcj. destruct (Nat.eq_dec j n) as [->|NE]; [congruence|]. apply (ZR j cj); [lia|exact Hcj].
    + exists O, c. rewrite Nat.add_0_r. split; [exact Hn|]. split; [exact E|]. intros j cj Hj. lia.
Qed.

(* the image built by mk_image: from any placed instruction, through labels, to the landing point of its address *)
Definition fwd_ok (im : image) : Prop :=
  forall pc c a, PM.find pc (code im) = Some c -> PM.find pc (addr_of im) = Some a ->
    (exists d cd, PM.find (padd pc d) (code im) = Some cd /\ isize cd <> 0) ->
    exists i0, PM.find (key a) (index_at im) = Some i0 /\ (exists c0, PM.find i0 (code im) = Some c0) /\ forall s, star im pc s i0 s.

Theorem mk_image_fwd cs : fwd_ok (mk_image cs).
Proof.
  intros pc c a Hc Ha (d0 & cd0 & Hd0 & NZ0).
  apply mk_image_code_inv in Hc as (n & -> & Hn).
  unfold mk_image in Ha. rewrite (build_addr_at cs _ _ _ n c Hn) in Ha.
  assert (Ea : a = CODE_BASE + size_of (firstn n cs)) by congruence. subst a. clear Ha.
  rewrite <- padd_add in Hd0. apply mk_image_code_inv in Hd0 as (m0 & E0 & Hm0). apply padd_inj in E0. subst m0.
  (* the first instruction of non-zero size at or after n *)
  assert (EX := first_nz cs d0 n cd0 Hm0 NZ0).
  destruct EX as (d & cd & Hd & NZ & ZR).
  exists (padd 1%positive (n + d)). split; [|split; [exists cd; apply (build_code_at cs 1%positive CODE_BASE _ (n + d) cd Hd)|]].
  - assert (Ld : (n + d < List.length cs)%nat) by (apply nth_error_Some; congruence).
    rewrite <- (size_zero_run cs d n ltac:(lia) ZR).
    apply (build_index_at cs 1%positive CODE_BASE _ (n + d) cd); [reflexivity|exact Hd|exact NZ].
  - intros s. assert (G : forall e, (e <= d)%nat -> star (mk_image cs) (padd 1%positive n) s (padd 1%positive (n + e)) s).
    { induction e as [|e IHe]; intros He; [rewrite Nat.add_0_r; apply star_refl|].
      eapply star_trans; [apply IHe; lia|].
      destruct (nth_error cs (n + e)) as [ce|] eqn:Hce; [|apply nth_error_None in Hce; assert (n + d < List.length cs)%nat by (apply nth_error_Some; congruence); lia].
      eapply star_step; [eapply one_next; [apply (build_code_at cs 1%positive CODE_BASE _ (n + e) ce Hce)|apply (build_addr_at cs 1%positive CODE_BASE _ (n + e) ce Hce)|apply zero_size_step; apply (ZR (n + e)%nat ce); [lia|exact Hce]]|].
      rewrite <- padd_succ. change (padd (Pos.succ 1) (n + e)) with (padd 1 (S (n + e))). replace (S (n + e)) with (n + S e)%nat by lia. apply star_refl. }
    apply (G d). lia.
Qed.

(* a run from an instruction and a run from a point reached from it finish alike *)
Lemma rfin_star_inv im stop :
  (exists l, PM.find stop (code im) = Some (LAB l)) -> PM.find (Pos.succ stop) (code im) = None ->
  forall pc s pc' s' o, star im pc s pc' s' -> (exists c, PM.find pc' (code im) = Some c) ->
  rfin im stop pc s o -> rfin im stop pc' s' o.
Proof.
  intros STOPC ENDC pc s pc' s' o ST. induction ST as [pc s|pc s pc1 s1 pc2 s2 O ST IH]; intros C' Fin; [exact Fin|].
  assert (C1 : exists c, PM.find pc1 (code im) = Some c).
  { inversion ST as [|? ? ? ? ? ? O1 _]; subst; [exact C'|]. inversion O1; subst; eauto. }
  pose proof (one_not_stop im stop STOPC ENDC _ _ _ _ O C1) as NE.
  apply IH; [exact C'|]. destruct Fin as (_ & n & sf & Hn). split; [exact C1|].
  destruct n as [|n]; [cbn in Hn; discriminate|]. rewrite (run_chunk_one im stop pc s pc1 s1 n O NE) in Hn. eauto.
Qed.

(* Let / Switch: what code_statement emits *)
Ltac ub H x E :=
  match type of H with
  | context [rbind ?r _] =>
      lazymatch r with
      | rbind _ _ => fail
      | _ => destruct r as [x|] eqn:E; cbn [rbind] in H; [|discriminate]
      end
  end.

Lemma cs_let types v t tag args next c lc code lc' :
  rcs types (Let v t tag args next) c lc = Ok (code, lc') ->
  exists d k rest arguments c1 lc1 tmpv c3,
    lookup_type types t = Ok d /\ xtor_position (txtors d) tag 0 = Ok k /\
    Backend.split_last (List.length args) c = Ok (rest, arguments) /\
    r_store arguments rest lc = Ok (c1, lc1) /\
    rvt (rest ++ [mkb v Prd t]) (idn v) = Ok tmpv /\
    rcs types next (rest ++ [mkb v Prd t]) lc1 = Ok (c3, lc') /\
    code = c1 ++ r_load_immediate tmpv (jump_length k) ++ c3.
Proof.
  intros H. cbn [code_statement] in H. ub H d LT. ub H k XP. ub H sp SL. destruct sp as [rest arguments].
  cbn [b_store rv_backend] in H. ub H st ST. destruct st as [c1 lc1]. ub H tmpv TV. ub H nx NX. destruct nx as [c3 lc3].
  cbn in H. inversion H; subst. exists d, k, rest, arguments, c1, lc1, tmpv, c3. repeat split; auto.
Qed.

(* the code of a list of clauses, generically in the load code and the body context: the clause loop of Switch / Create *)
Notation gclauses types ld bc fresh := (cl_loop rv_backend types fresh ld bc).

Lemma gclauses_nth types ld bc fresh : forall cls lc c5 lc' k x cx body,
  gclauses types ld bc fresh cls lc = Ok (c5, lc') -> nth_error cls k = Some (x, cx, body) ->
  exists pre lc0 cl lc1 cb lc2 post,
    c5 = pre ++ [LAB (fresh +++ "_" +++ show_ident x)] ++ cl ++ cb ++ post /\
    ld cx lc0 = Ok (cl, lc1) /\ rcs types body (bc cx) lc1 = Ok (cb, lc2) /\ (k = O -> pre = []).
Proof.
  induction cls as [|[[x0 cx0] body0] r IH]; intros lc c5 lc' k x cx body H Hk; [destruct k; discriminate|].
  cbn [cl_loop] in H.
  destruct (ld cx0 lc) as [[cl lc1]|] eqn:LD; cbn [rbind] in H; [|discriminate].
  destruct (rcs types body0 (bc cx0) lc1) as [[cb lc2]|] eqn:BD; cbn [rbind] in H; [|discriminate].
  destruct (gclauses types ld bc fresh r lc2) as [[cr lc3]|] eqn:RS; cbn [rbind] in H; [|discriminate].
  inversion H; subst c5 lc'. destruct k as [|k]; cbn [nth_error] in Hk.
  - inversion Hk; subst. exists [], lc, cl, lc1, cb, lc2, cr. auto.
  - destruct (IH _ _ _ _ _ _ _ RS Hk) as (pre & lc0 & cl' & lc1' & cb' & lc2' & post & -> & L & B & _).
    exists ([LAB (fresh +++ "_" +++ show_ident x0)] ++ cl ++ cb ++ pre), lc0, cl', lc1', cb', lc2', post.
    split; [|split; [auto|split; [auto|discriminate]]]. cbn [b_label rv_backend]. rewrite <- !app_assoc. reflexivity.
Qed.

Definition switch_head (cls : list clause) (fresh : string) (tmpv : reg) : list rcode :=
  if Nat.leb (List.length cls) 1 then [] else [LA TEMP fresh; ADD TEMP TEMP tmpv; JALR ZERO TEMP 0].

Lemma cs_switch types v t cls c lc code lc' :
  rcs types (Switch v t cls) c lc = Ok (code, lc') ->
  exists c1 c3,
    (if Nat.leb (List.length cls) 1 then c1 = []
     else exists tmpv, rvt c (idn v) = Ok tmpv /\ c1 = switch_head cls (type_label t (lc + 1)%N) tmpv) /\
    gclauses types (fun cx lc0 => r_load cx (removelast c) lc0) (fun cx => removelast c ++ cx)
             (type_label t (lc + 1)%N) cls (lc + 1)%N = Ok (c3, lc') /\
    code = c1 ++ ([LAB (type_label t (lc + 1)%N)] ++ table_or_nil rv_backend cls (type_label t (lc + 1)%N)) ++ c3.
Proof.
  intros H. rewrite code_switch_eq in H. cbv zeta in H. set (fresh := type_label t (lc + 1)%N) in *.
  destruct (Nat.leb (List.length cls) 1) eqn:LE.
  - cbn [rbind] in H.
    destruct (gclauses types _ _ fresh cls (lc + 1)%N) as [[c3 lc3]|] eqn:CC; cbn [rbind] in H; [|discriminate].
    cbn in H. assert (E : code = LAB fresh :: c3 /\ lc3 = lc') by (split; congruence). destruct E as [-> ->].
    exists [], c3. split; [reflexivity|]. split; [reflexivity|]. unfold table_or_nil. unfold clause in *. rewrite LE. reflexivity.
  - destruct (rvt c (idn v)) as [tmpv|] eqn:TV; cbn [rbind] in H; [|discriminate].
    destruct (gclauses types _ _ fresh cls (lc + 1)%N) as [[c3 lc3]|] eqn:CC; cbn [rbind] in H; [|discriminate].
    cbn [b_load_label b_arith b_jump b_temp b_label b_mark rv_backend fst snd r_load_label r_arith r_jump app] in H. inversion H; subst.
    exists (switch_head cls fresh tmpv), c3. unfold switch_head, table_or_nil. unfold clause in *. rewrite LE.
    split; [exists tmpv; auto|]. split; [reflexivity|]. reflexivity.
Qed.

Lemma clauses_code_gclauses types cenv fresh : forall cls lc,
  clauses_code rv_backend types cenv fresh cls lc = gclauses types (fun cx lc0 => r_load cenv cx lc0) (fun cx => cx ++ cenv) fresh cls lc.
Proof.
  induction cls as [|[[x cx] body] r IH]; intros lc; [reflexivity|]. cbn [clauses_code cl_loop b_load rv_backend b_label].
  destruct (r_load cenv cx lc) as [[cl lc1]|]; cbn [rbind]; [|reflexivity].
  destruct (rcs types body (cx ++ cenv) lc1) as [[cb lc2]|]; cbn [rbind]; [|reflexivity].
  rewrite IH. reflexivity.
Qed.

Notation bsplit_last_app := X86HSimHeapA.bsplit_last_app.
Notation asplit_last_app := X86HSimHeapA.asplit_last_app.

(* a piece of code that contains an instruction of non-zero size *)
Definition has_nz (cs : list rcode) : Prop := exists d cd, nth_error cs d = Some cd /\ isize cd <> 0.
Lemma has_nz_app_l a b : has_nz a -> has_nz (a ++ b).
Proof. intros (d & cd & H & N). exists d, cd. split; [|exact N]. rewrite nth_error_app1; [exact H|]. apply nth_error_Some. congruence. Qed.
Lemma has_nz_app_r a b : has_nz b -> has_nz (a ++ b).
Proof. intros (d & cd & H & N). exists (List.length a + d)%nat, cd. split; [|exact N]. rewrite nth_error_app2 by lia. now replace (List.length a + d - List.length a)%nat with d by lia. Qed.
Lemma starts_nz_has_nz cs : starts_nz cs -> has_nz cs.
Proof. intros (c & r & -> & N). exists O, c. auto. Qed.

Section Layout.
Variable im : image.
Variable stop : positive.
Hypothesis IMG : rimg_ok im.
Hypothesis FWD : fwd_ok im.
Hypothesis STOPC : exists l, PM.find stop (code im) = Some (LAB l).
Hypothesis ENDC : PM.find (Pos.succ stop) (code im) = None.

(* the address of table entry k *)
Lemma table_entry_k pcl fresh cls R a :
  at_code im pcl ([LAB fresh] ++ code_table rv_backend cls fresh ++ R) ->
  PM.find pcl (addr_of im) = Some a ->
  forall k, (k < List.length cls)%nat ->
    PM.find (key (a + 4 * Z.of_nat k)) (index_at im) = Some (padd pcl (1 + k)) /\
    PM.find (padd pcl (1 + k)) (addr_of im) = Some (a + 4 * Z.of_nat k).
Proof.
  intros CA A k Hk.
  set (tb := code_table rv_backend cls fresh) in *.
  assert (LT : List.length tb = List.length cls) by apply code_table_length.
  destruct (nth_error tb k) as [ck|] eqn:Ek; [|apply nth_error_None in Ek; lia].
  assert (NTH : nth_error ([LAB fresh] ++ tb ++ R) (1 + k) = Some ck).
  { cbn [app Nat.add nth_error]. rewrite nth_error_app1; [exact Ek|]. apply nth_error_Some. congruence. }
  assert (ADDR : PM.find (padd pcl (1 + k)) (addr_of im) = Some (a + 4 * Z.of_nat k)).
  { rewrite (addr_along im IMG _ pcl a CA A (1 + k) ck NTH).
    f_equal. cbn [app Nat.add firstn size_of isize]. rewrite firstn_app.
    replace (k - List.length tb)%nat with O by lia. cbn [firstn]. rewrite app_nil_r.
    unfold tb. rewrite code_table_size by lia. lia. }
  split; [|exact ADDR].
  assert (SZ : isize ck <> 0).
  { unfold tb, code_table in Ek. cbn [b_jump_label_fixed rv_backend] in Ek.
    clear -Ek. revert k Ek. induction cls as [|c0 r IH]; intros k Ek; [destruct k; discriminate|].
    cbn [flat_map app r_jump_label] in Ek. destruct k; cbn [nth_error] in Ek; [inversion Ek; cbn; lia|eauto]. }
  apply (io_index im IMG _ ck _ (proj1 (CA _ _ NTH)) SZ ADDR).
Qed.
End Layout.
