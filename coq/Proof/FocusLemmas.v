(* The model of focus (Model/Focus.v) on well-formed input with pairwise distinct binders:
   no panic, the counter only grows, the binders of the output are pairwise distinct (inherited or
   fresh), every id stays below the counter and non-zero ids stay in scope.
   The invariant on continuations is [kpost]: "k maps a binding that is in scope and below the
   counter, and any larger counter, to a statement whose binders are the ones k closes over plus
   fresh ones above that counter". *)
From Coq Require Import List ZArith NArith String Bool Lia.
From SCC Require Import Base.Sexp Lang.CoreSyn Model.Backend Model.Uniquify Model.Focus Model.FocusCheck
     Proof.CoreInd Proof.SubstProof Proof.CheckLemmas.
Import ListNotations.
Open Scope list_scope.
Open Scope N_scope.

Definition occ_sc (env : list N) (v : cident) : bool := N.eqb (cid_id v) 0 || memN (cid_id v) env.
Fixpoint fs_scoped_term (env : list N) (t : fsterm) : bool :=
  match t with
  | FsXVar _ v _ => occ_sc env v
  | FsLit _ => true
  | FsOp a _ b => occ_sc env a && occ_sc env b
  | FsMu _ v s _ => fs_scoped_stmt (cid_id v :: env) s
  | FsXtor _ _ args _ => forallb (occ_sc env) (cvars args)
  | FsXCase _ cls _ => forallb (fs_scoped_clause env) cls
  end
with fs_scoped_clause (env : list N) (c : fsclause) : bool :=
  match c with FsClause _ _ ctx body => fs_scoped_stmt (cids ctx ++ env) body end
with fs_scoped_stmt (env : list N) (s : fsstmt) : bool :=
  match s with
  | FsCut p _ k => fs_scoped_term env p && fs_scoped_term env k
  | FsIfC _ a b t e =>
      occ_sc env a && match b with Some b' => occ_sc env b' | None => true end
      && fs_scoped_stmt env t && fs_scoped_stmt env e
  | FsPrint _ a next => occ_sc env a && fs_scoped_stmt env next
  | FsCall _ args => forallb (occ_sc env) (cvars args)
  | FsExit v => occ_sc env v
  end.

Lemma occ_sc_mono : forall env env' v, sub_nz env env' -> occ_sc env v = true -> occ_sc env' v = true.
Proof.
  unfold occ_sc; intros env env' v S H. destruct (N.eqb (cid_id v) 0) eqn:Z; simpl in *; auto.
  apply N.eqb_neq in Z. apply memN_In. apply memN_In in H. auto.
Qed.

Lemma fs_ids_le_mono_all : forall b b', b <= b' ->
  (forall t, fs_ids_le_term b t = true -> fs_ids_le_term b' t = true) /\
  (forall c, fs_ids_le_clause b c = true -> fs_ids_le_clause b' c = true) /\
  (forall s, fs_ids_le_stmt b s = true -> fs_ids_le_stmt b' s = true).
Proof.
  intros b b' L.
  assert (LE : forall i, N.leb i b = true -> N.leb i b' = true).
  { intros i H. apply N.leb_le in H. apply N.leb_le. lia. }
  apply fs_mutind; simpl; intros; bsplit; auto.
  - eapply forallb_impl; [|eassumption]. intros; auto.
  - eapply forallb_impl; [|eassumption]. rewrite Forall_forall in H. auto.
  - eapply forallb_impl; [|eassumption]. intros; auto.
  - destruct b0; auto.
  - eapply forallb_impl; [|eassumption]. intros; auto.
Qed.
Definition fs_ids_le_term_mono b b' (L : b <= b') := proj1 (fs_ids_le_mono_all b b' L).
Definition fs_ids_le_clause_mono b b' (L : b <= b') := proj1 (proj2 (fs_ids_le_mono_all b b' L)).
Definition fs_ids_le_stmt_mono b b' (L : b <= b') := proj2 (proj2 (fs_ids_le_mono_all b b' L)).

Definition good_b (m : N) (env : list N) (b : cbinding) : Prop :=
  cid_id (cbvar b) <= m /\ occ_sc env (cbvar b) = true.

(* the result of focusing at counter m: no panic, the counter only grows, the binders of the output are pairwise
   distinct (inherited from R or fresh), every id is below the new counter, non-zero ids are in scope *)
Definition post {X : Type} (ids : X -> list N) (le : N -> X -> bool) (sc : list N -> X -> bool)
    (R env : list N) (m : N) (r : res (X * N)) : Prop :=
  exists x m', r = Ok (x, m') /\ m <= m' /\ bspec R m m' (ids x) /\ le m' x = true /\ sc env x = true.
Lemma post_ok {X : Type} {ids : X -> list N} {le sc R env m} (x : X) (m' : N) :
  m <= m' -> bspec R m m' (ids x) -> le m' x = true -> sc env x = true -> post ids le sc R env m (Ok (x, m')).
Proof. intros. exists x, m'. auto. Qed.
Definition fpost := post fs_binder_ids_stmt fs_ids_le_stmt fs_scoped_stmt.
Definition tpost := post fs_binder_ids_term fs_ids_le_term fs_scoped_term.
Definition cpost := post fs_binder_ids_clause fs_ids_le_clause fs_scoped_clause.
Definition cspost := post (flat_map fs_binder_ids_clause) (fun m => forallb (fs_ids_le_clause m)) (fun env => forallb (fs_scoped_clause env)).

(* the ids L of what is about to be focused at counter m: pairwise distinct and all <= T <= m.  T bounds the binder
   ids of the input (max_id of the uniquified program): the fresh names, taken from above m, are new. *)
Definition okids (T m : N) (L : list N) : Prop := NoDup L /\ mem_le T L /\ T <= m.
Lemma okids_l {T m A B} : okids T m (A ++ B) -> okids T m A.
Proof. intros (ND & ML & LE). apply NoDup_app_iff in ND. apply mem_le_app in ML. repeat split; tauto. Qed.
Lemma okids_r {T m A B} : okids T m (A ++ B) -> okids T m B.
Proof. intros (ND & ML & LE). apply NoDup_app_iff in ND. apply mem_le_app in ML. repeat split; tauto. Qed.
Lemma okids_tl {T m x L} : okids T m (x :: L) -> okids T m L.
Proof. exact (@okids_r T m [x] L). Qed.
Lemma okids_le {T m m' L} : okids T m L -> m <= m' -> okids T m' L.
Proof. intros (ND & ML & LE) L1. repeat split; auto. lia. Qed.
Lemma okids_swap {T m A B} : okids T m (A ++ B) -> okids T m (B ++ A).
Proof.
  intros (ND & ML & LE). apply NoDup_app_iff in ND. destruct ND as (N1 & N2 & N3). apply mem_le_app in ML.
  split; [apply NoDup_app_iff; repeat split; auto; intros x H1 H2; exact (N3 x H2 H1)|]. split; [apply mem_le_app; tauto | exact LE].
Qed.

Definition kpost (lo : N) (Rk env : list N) (k : kont) : Prop :=
  forall b m1 env', lo <= m1 -> sub_nz env env' -> good_b m1 env' b -> fpost Rk env' m1 (k b m1).
Definition kvpost (lo : N) (Rk env : list N) (k : kontv) : Prop :=
  forall bs m1 env', lo <= m1 -> sub_nz env env' -> Forall (good_b m1 env') bs -> fpost Rk env' m1 (k bs m1).

Lemma good_b_mono : forall m m' env env' b, good_b m env b -> m <= m' -> sub_nz env env' -> good_b m' env' b.
Proof. intros m m' env env' b [A B] L S; split; [lia | eapply occ_sc_mono; eauto]. Qed.

Lemma fpost_weaken : forall R R' env m r, fpost R env m r -> incl R R' -> fpost R' env m r.
Proof.
  intros R R' env m r (s' & m' & E & L & B & I & S) Inc. exists s', m'. repeat split; auto; try apply B.
  intros b Hb. destruct B as [_ B]. destruct (B b Hb); auto.
Qed.

Lemma good_fresh : forall m env base ch ty, good_b (m + 1) ((m + 1) :: env) (mkcb (base, m + 1) ch ty).
Proof.
  intros; split; simpl; [lia|]. unfold occ_sc; simpl. rewrite N.eqb_refl. apply orb_true_r.
Qed.

Lemma good_ids : forall m env bs, Forall (good_b m env) bs ->
  forallb (fun i => N.leb i m) (cids bs) = true /\ forallb (occ_sc env) (cvars bs) = true.
Proof.
  induction 1 as [|b bs [A B] _ [IH1 IH2]]; simpl; auto. split; bsplit; auto. apply N.leb_le; auto.
Qed.

(* a fresh (co)variable m + 1 handed to a continuation *)
Lemma kpost_fresh : forall lo Rk env k m env' base ch ty,
  kpost lo Rk env k -> lo <= m -> sub_nz env env' ->
  fpost Rk ((m + 1) :: env') (m + 1) (k (mkcb (base, m + 1) ch ty) (m + 1)).
Proof. intros lo Rk env k m env' base ch ty K L S. apply K; [lia | apply sub_nz_skip; exact S | apply good_fresh]. Qed.

(* <h | mu~ x. s> and <mu a. s | h>, where h binds nothing and s is what the continuation returned for
   the fresh x (a) = m + 1 *)
Lemma fpost_fresh_r : forall T Rk env m h ty base r,
  fpost Rk ((m + 1) :: env) (m + 1) r -> okids T m Rk ->
  fs_binder_ids_term h = [] -> fs_ids_le_term m h = true -> fs_scoped_term env h = true ->
  fpost Rk env m (dor (s, m2) <- r; Ok (FsCut h ty (FsMu CCns (base, m + 1) s ty), m2)).
Proof.
  intros T Rk env m h ty base r (sk & mk & -> & Lk & Bk & Ik & Sk) (_ & ML & LE) Hb Hi Hs. simpl.
  eexists _, _. split; [reflexivity|]. split; [lia|]. simpl. rewrite Hb. simpl.
  split; [eapply bspec_cons_fresh; eauto|]. split; bsplit; auto.
  - eapply fs_ids_le_term_mono; [|eassumption]; lia.
  - apply N.leb_le; lia.
Qed.
Lemma fpost_fresh_l : forall T Rk env m h ty base r,
  fpost Rk ((m + 1) :: env) (m + 1) r -> okids T m Rk ->
  fs_binder_ids_term h = [] -> fs_ids_le_term m h = true -> fs_scoped_term env h = true ->
  fpost Rk env m (dor (s, m2) <- r; Ok (FsCut (FsMu CPrd (base, m + 1) s ty) ty h, m2)).
Proof.
  intros T Rk env m h ty base r (sk & mk & -> & Lk & Bk & Ik & Sk) (_ & ML & LE) Hb Hi Hs. simpl.
  eexists _, _. split; [reflexivity|]. split; [lia|]. simpl. rewrite Hb, app_nil_r.
  split; [eapply bspec_cons_fresh; eauto|]. split; bsplit; auto.
  - apply N.leb_le; lia.
  - eapply fs_ids_le_term_mono; [|eassumption]; lia.
Qed.

(* the heads built from bindings *)
Lemma good_op : forall m env b1 b2 o, good_b m env b1 -> good_b m env b2 ->
  fs_ids_le_term m (FsOp (cbvar b1) o (cbvar b2)) = true /\ fs_scoped_term env (FsOp (cbvar b1) o (cbvar b2)) = true.
Proof. intros m env b1 b2 o [A1 B1] [A2 B2]. simpl. rewrite B1, B2. split; [|reflexivity]. bsplit; apply N.leb_le; assumption. Qed.

Definition FBt (t : cterm) : Prop := forall c k m T Rk env,
  wf_term c t = true -> okids T m (binder_ids_term t ++ Rk) ->
  ids_le_term T t = true -> scoped_term env t = true -> kpost m Rk env k ->
  fpost (binder_ids_term t ++ Rk) env m (bind_term c t k m).
Definition FFt (t : cterm) : Prop := forall c m T env,
  wf_term c t = true -> is_xtor t = false -> is_op t = false -> okids T m (binder_ids_term t) ->
  ids_le_term T t = true -> scoped_term env t = true ->
  tpost (binder_ids_term t) env m (focus_term c t m).
Definition FBa (a : carg) : Prop := forall k m T Rk env,
  wf_arg a = true -> okids T m (binder_ids_arg a ++ Rk) ->
  ids_le_arg T a = true -> scoped_arg env a = true -> kpost m Rk env k ->
  fpost (binder_ids_arg a ++ Rk) env m (bind_arg a k m).
Definition FFc (cl : cclause) : Prop := forall m T env,
  wf_clause cl = true -> okids T m (binder_ids_clause cl) ->
  ids_le_clause T cl = true -> scoped_clause env cl = true ->
  cpost (binder_ids_clause cl) env m (focus_clause cl m).
Definition FFs (s : cstmt) : Prop := forall m T env,
  wf_stmt s = true -> okids T m (binder_ids_stmt s) ->
  ids_le_stmt T s = true -> scoped_stmt env s = true ->
  fpost (binder_ids_stmt s) env m (focus_stmt s m).
(* what Cut::focus needs about the immediate sub-terms of its producer/consumer *)
Definition sub_ok (t : cterm) : Prop :=
  match t with
  | CXtor _ _ args _ => Forall FBa args
  | COp a _ b => FBt a /\ FBt b
  | _ => True
  end.
Definition Pt (t : cterm) : Prop := FBt t /\ FFt t /\ sub_ok t.

Lemma bind_many_spec : forall args, Forall FBa args -> forall kv m T Rk env,
  forallb wf_arg args = true -> okids T m (flat_map binder_ids_arg args ++ Rk) ->
  forallb (ids_le_arg T) args = true -> forallb (scoped_arg env) args = true ->
  kvpost m Rk env kv ->
  fpost (flat_map binder_ids_arg args ++ Rk) env m (bind_many_with bind_arg args kv m).
Proof.
  induction 1 as [|a r Ha Hr IH]; intros kv m T Rk env W OK I S K; simpl in *.
  - apply K; [lia | apply sub_nz_refl | constructor].
  - bsplit. rewrite <- app_assoc in *.
    apply Ha with (T := T); auto.
    intros b m1 env' L1 S1 G1.
    apply IH with (T := T); auto.
    + exact (okids_le (okids_r OK) L1).
    + eapply forallb_impl; [|eassumption]. intros x _ Hx. eapply scoped_arg_mono; eauto.
    + intros bs m2 env'' L2 S2 G2. apply K; try lia.
      * eapply sub_nz_trans; eauto.
      * constructor; auto. eapply good_b_mono; eauto.
Qed.

Lemma focus_clauses_spec : forall cls, Forall FFc cls -> forall m T env,
  forallb wf_clause cls = true -> okids T m (flat_map binder_ids_clause cls) ->
  forallb (ids_le_clause T) cls = true -> forallb (scoped_clause env) cls = true ->
  cspost (flat_map binder_ids_clause cls) env m (maprs focus_clause cls m).
Proof.
  induction 1 as [|a r Ha Hr IH]; intros m T env W OK I S; simpl in *.
  - exists [], m. split; [reflexivity|]. split; [lia|]. split; [apply bspec_nil|auto].
  - bsplit.
    destruct (Ha m T env) as (a' & m1 & E1 & L1 & B1 & I1 & S1); auto. { exact (okids_l OK). }
    destruct (IH m1 T env) as (r' & m2 & E2 & L2 & B2 & I2 & S2); auto. { exact (okids_le (okids_r OK) L1). }
    rewrite E1; simpl. rewrite E2; simpl. exists (a' :: r'), m2. simpl. destruct OK as (ND & ML & LE).
    split; [reflexivity|]. split; [lia|]. split; [eapply bspec_app; eauto|]. split; bsplit; auto.
    eapply fs_ids_le_clause_mono; [|eassumption]; lia.
Qed.
