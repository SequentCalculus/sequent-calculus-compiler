(* Real inputs of focus: the Core programs fun2core::program::compile_prog produced (harness `focus`)
   for two repository programs and one generated program with effects in argument
   positions, as Debug-shaped S-expressions.  They satisfy the precondition of the C03 theorems;
   modelrun `focus` re-checks this for every translation output on every run. *)
From Coq Require Import List ZArith NArith String Bool.
From SCC Require Import Base.Sexp Lang.CoreSyn Model.Backend Model.Uniquify Model.Focus Model.FocusCheck.
Import ListNotations.
Open Scope string_scope.

Definition parse_prog (s : string) : option cprog :=
  match read_all s with Some [x] => g_cprog x | _ => None end.
Definition pre_ok (s : string) : bool :=
  match parse_prog s with Some p => pre_check p && focus_wf p | None => false end.
Definition focus_ok (s : string) : bool :=
  match parse_prog s with
  | Some p => match focus_prog p with Ok q => unique_check p q | Err _ => false end
  | None => false
  end.

(* file:/repo/examples/Lists/Lists.sc *)
Definition ex_lists : string :=
  "(Prog ((Def (Identifier ""main"" 0) (TypingContext ()) (Cut (Cut (Xtor (Xtor Prd (Identifier ""Cons"" 0) (Arguments ((Producer (Op (Op (Literal (Literal 1)) Sum (Literal (Literal 2))))) (Producer (Xtor (Xtor Prd (Identifier ""Cons"" 0) (Arguments ((Producer (Literal (Literal 2))) (Producer (Xtor (Xtor Prd (Identifier ""Cons"" 0) (Arguments ((Producer (Literal (Literal 3))) (Producer (Xtor (Xtor Prd (Identifier ""Cons"" 0) (Arguments ((Producer (Literal (Literal 4))) (Producer (Xtor (Xtor Prd (Identifier ""Nil"" 0) (Arguments ()) (Decl (Identifier ""List[i64]"" 0))))))) (Decl (Identifier ""List[i64]"" 0))))))) (Decl (Identifier ""List[i64]"" 0))))))) (Decl (Identifier ""List[i64]"" 0))))))) (Decl (Identifier ""List[i64]"" 0)))) (Decl (Identifier ""List[i64]"" 0)) (Mu (Mu Cns (Identifier ""l"" 0) (IfC (IfC Greater (Mu (Mu Prd (Identifier ""a2"" 0) (Call (Call (Identifier ""len"" 0) (Arguments ((Producer (XVar (XVar Prd (Identifier ""l"" 0) (Decl (Identifier ""List[i64]"" 0))))) (Consumer (XVar (XVar Cns (Identifier ""a2"" 0) I64))))) I64)) I64)) None (Cut (Cut (Op (Op (Mu (Mu Prd (Identifier ""a3"" 0) (Call (Call (Identifier ""len"" 0) (Arguments ((Producer (XVar (XVar Prd (Identifier ""l"" 0) (Decl (Identifier ""List[i64]"" 0))))) (Consumer (XVar (XVar Cns (Identifier ""a3"" 0) I64))))) I64)) I64)) Sum (Literal (Literal 1)))) I64 (Mu (Mu Cns (Identifier ""x"" 0) (Call (Call (Identifier ""share_main_1"" 0) (Arguments ((Producer (XVar (XVar Prd (Identifier ""l"" 0) (Decl (Identifier ""List[i64]"" 0))))) (Producer (XVar (XVar Prd (Identifier ""x"" 0) I64))))) I64)) I64)))) (Cut (Cut (Literal (Literal 0)) I64 (Mu (Mu Cns (Identifier ""x"" 0) (Call (Call (Identifier ""share_main_1"" 0) (Arguments ((Producer (XVar (XVar Prd (Identifier ""l"" 0) (Decl (Identifier ""List[i64]"" 0))))) (Producer (XVar (XVar Prd (Identifier ""x"" 0) I64))))) I64)) I64)))))) (Decl (Identifier ""List[i64]"" 0))))))) (Def (Identifier ""share_main_1"" 0) (TypingContext ((ContextBinding (Identifier ""l"" 0) Prd (Decl (Identifier ""List[i64]"" 0))) (ContextBinding (Identifier ""x"" 0) Prd I64))) (Cut (Cut (XVar (XVar Prd (Identifier ""l"" 0) (Decl (Identifier ""List[i64]"" 0)))) (Decl (Identifier ""List[i64]"" 0)) (XCase (XCase Cns ((Clause Cns (Identifier ""Nil"" 0) (TypingContext ()) (Cut (Cut (Xtor (Xtor Prd (Identifier ""Nil"" 0) (Arguments ()) (Decl (Identifier ""List[i64]"" 0)))) (Decl (Identifier ""List[i64]"" 0)) (Mu (Mu Cns (Identifier ""l1"" 0) (Call (Call (Identifier ""share_main_0"" 0) (Arguments ((Producer (XVar (XVar Prd (Identifier ""l1"" 0) (Decl (Identifier ""List[i64]"" 0))))))) (Decl (Identifier ""List[i64]"" 0)))) (Decl (Identifier ""List[i64]"" 0))))))) (Clause Cns (Identifier ""Cons"" 0) (TypingContext ((ContextBinding (Identifier ""z"" 0) Prd I64) (ContextBinding (Identifier ""zs"" 0) Prd (Decl (Identifier ""List[i64]"" 0))))) (Call (Call (Identifier ""map"" 0) (Arguments ((Producer (XCase (XCase Prd ((Clause Prd (Identifier ""apply"" 0) (TypingContext ((ContextBinding (Identifier ""n"" 0) Prd I64) (ContextBinding (Identifier ""a1"" 0) Cns I64))) (Cut (Cut (Op (Op (Op (Op (XVar (XVar Prd (Identifier ""x"" 0) I64)) Sum (XVar (XVar Prd (Identifier ""n"" 0) I64)))) Sub (XVar (XVar Prd (Identifier ""z"" 0) I64)))) I64 (XVar (XVar Cns (Identifier ""a1"" 0) I64)))))) (Decl (Identifier ""Fun[i64, i64]"" 0))))) (Producer (XVar (XVar Prd (Identifier ""zs"" 0) (Decl (Identifier ""List[i64]"" 0))))) (Consumer (Mu (Mu Cns (Identifier ""l1"" 0) (Call (Call (Identifier ""share_main_0"" 0) (Arguments ((Producer (XVar (XVar Prd (Identifier ""l1"" 0) (Decl (Identifier ""List[i64]"" 0))))))) (Decl (Identifier ""List[i64]"" 0)))) (Decl (Identifier ""List[i64]"" 0))))))) (Decl (Identifier ""List[i64]"" 0)))))) (Decl (Identifier ""List[i64]"" 0))))))) (Def (Identifier ""share_main_0"" 0) (TypingContext ((ContextBinding (Identifier ""l1"" 0) Prd (Decl (Identifier ""List[i64]"" 0))))) (PrintI64 (PrintI64 true (Mu (Mu Prd (Identifier ""a0"" 0) (Call (Call (Identifier ""mult"" 0) (Arguments ((Producer (XVar (XVar Prd (Identifier ""l1"" 0) (Decl (Identifier ""List[i64]"" 0))))) (Consumer (XVar (XVar Cns (Identifier ""a0"" 0) I64))))) I64)) I64)) (Cut (Cut (Literal (Literal 0)) I64 (Mu (Mu Cns (Identifier ""x0"" 0) (Exit (Exit (XVar (XVar Prd (Identifier ""x0"" 0) I64)) I64)) I64))))))) (Def (Identifier ""map"" 0) (TypingContext ((ContextBinding (Identifier ""f"" 0) Prd (Decl (Identifier ""Fun[i64, i64]"" 0))) (ContextBinding (Identifier ""l"" 0) Prd (Decl (Identifier ""List[i64]"" 0))) (ContextBinding (Identifier ""a0"" 0) Cns (Decl (Identifier ""List[i64]"" 0))))) (Cut (Cut (XVar (XVar Prd (Identifier ""l"" 0) (Decl (Identifier ""List[i64]"" 0)))) (Decl (Identifier ""List[i64]"" 0)) (XCase (XCase Cns ((Clause Cns (Identifier ""Nil"" 0) (TypingContext ()) (Cut (Cut (Xtor (Xtor Prd (Identifier ""Nil"" 0) (Arguments ()) (Decl (Identifier ""List[i64]"" 0)))) (Decl (Identifier ""List[i64]"" 0)) (XVar (XVar Cns (Identifier ""a0"" 0) (Decl (Identifier ""List[i64]"" 0))))))) (Clause Cns (Identifier ""Cons"" 0) (TypingContext ((ContextBinding (Identifier ""x"" 0) Prd I64) (ContextBinding (Identifier ""xs"" 0) Prd (Decl (Identifier ""List[i64]"" 0))))) (Cut (Cut (Xtor (Xtor Prd (Identifier ""Cons"" 0) (Arguments ((Producer (Mu (Mu Prd (Identifier ""a1"" 0) (Cut (Cut (XVar (XVar Prd (Identifier ""f"" 0) (Decl (Identifier ""Fun[i64, i64]"" 0)))) (Decl (Identifier ""Fun[i64, i64]"" 0)) (Xtor (Xtor Cns (Identifier ""apply"" 0) (Arguments ((Producer (XVar (XVar Prd (Identifier ""x"" 0) I64))) (Consumer (XVar (XVar Cns (Identifier ""a1"" 0) I64))))) (Decl (Identifier ""Fun[i64, i64]"" 0)))))) I64))) (Producer (Mu (Mu Prd (Identifier ""a2"" 0) (Call (Call (Identifier ""map"" 0) (Arguments ((Producer (XVar (XVar Prd (Identifier ""f"" 0) (Decl (Identifier ""Fun[i64, i64]"" 0))))) (Producer (XVar (XVar Prd (Identifier ""xs"" 0) (Decl (Identifier ""List[i64]"" 0))))) (Consumer (XVar (XVar Cns (Identifier ""a2"" 0) (Decl (Identifier ""List[i64]"" 0))))))) (Decl (Identifier ""List[i64]"" 0)))) (Decl (Identifier ""List[i64]"" 0))))))) (Decl (Identifier ""List[i64]"" 0)))) (Decl (Identifier ""List[i64]"" 0)) (XVar (XVar Cns (Identifier ""a0"" 0) (Decl (Identifier ""List[i64]"" 0)))))))) (Decl (Identifier ""List[i64]"" 0))))))) (Def (Identifier ""len"" 0) (TypingContext ((ContextBinding (Identifier ""l"" 0) Prd (Decl (Identifier ""List[i64]"" 0))) (ContextBinding (Identifier ""a0"" 0) Cns I64))) (Cut (Cut (XVar (XVar Prd (Identifier ""l"" 0) (Decl (Identifier ""List[i64]"" 0)))) (Decl (Identifier ""List[i64]"" 0)) (XCase (XCase Cns ((Clause Cns (Identifier ""Nil"" 0) (TypingContext ()) (Cut (Cut (Literal (Literal 0)) I64 (XVar (XVar Cns (Identifier ""a0"" 0) I64))))) (Clause Cns (Identifier ""Cons"" 0) (TypingContext ((ContextBinding (Identifier ""x"" 0) Prd I64) (ContextBinding (Identifier ""xs"" 0) Prd (Decl (Identifier ""List[i64]"" 0))))) (Cut (Cut (Op (Op (Literal (Literal 1)) Sum (Mu (Mu Prd (Identifier ""a1"" 0) (Call (Call (Identifier ""len"" 0) (Arguments ((Producer (XVar (XVar Prd (Identifier ""xs"" 0) (Decl (Identifier ""List[i64]"" 0))))) (Consumer (XVar (XVar Cns (Identifier ""a1"" 0) I64))))) I64)) I64)))) I64 (XVar (XVar Cns (Identifier ""a0"" 0) I64)))))) (Decl (Identifier ""List[i64]"" 0))))))) (Def (Identifier ""foldr"" 0) (TypingContext ((ContextBinding (Identifier ""f"" 0) Prd (Decl (Identifier ""Fun2[i64, i64, i64]"" 0))) (ContextBinding (Identifier ""st"" 0) Prd I64) (ContextBinding (Identifier ""l"" 0) Prd (Decl (Identifier ""List[i64]"" 0))) (ContextBinding (Identifier ""a0"" 0) Cns I64))) (Cut (Cut (XVar (XVar Prd (Identifier ""l"" 0) (Decl (Identifier ""List[i64]"" 0)))) (Decl (Identifier ""List[i64]"" 0)) (XCase (XCase Cns ((Clause Cns (Identifier ""Nil"" 0) (TypingContext ()) (Cut (Cut (XVar (XVar Prd (Identifier ""st"" 0) I64)) I64 (XVar (XVar Cns (Identifier ""a0"" 0) I64))))) (Clause Cns (Identifier ""Cons"" 0) (TypingContext ((ContextBinding (Identifier ""y"" 0) Prd I64) (ContextBinding (Identifier ""ys"" 0) Prd (Decl (Identifier ""List[i64]"" 0))))) (Cut (Cut (XVar (XVar Prd (Identifier ""f"" 0) (Decl (Identifier ""Fun2[i64, i64, i64]"" 0)))) (Decl (Identifier ""Fun2[i64, i64, i64]"" 0)) (Xtor (Xtor Cns (Identifier ""apply2"" 0) (Arguments ((Producer (XVar (XVar Prd (Identifier ""y"" 0) I64))) (Producer (Mu (Mu Prd (Identifier ""a1"" 0) (Call (Call (Identifier ""foldr"" 0) (Arguments ((Producer (XVar (XVar Prd (Identifier ""f"" 0) (Decl (Identifier ""Fun2[i64, i64, i64]"" 0))))) (Producer (XVar (XVar Prd (Identifier ""st"" 0) I64))) (Producer (XVar (XVar Prd (Identifier ""ys"" 0) (Decl (Identifier ""List[i64]"" 0))))) (Consumer (XVar (XVar Cns (Identifier ""a1"" 0) I64))))) I64)) I64))) (Consumer (XVar (XVar Cns (Identifier ""a0"" 0) I64))))) (Decl (Identifier ""Fun2[i64, i64, i64]"" 0)))))))) (Decl (Identifier ""List[i64]"" 0))))))) (Def (Identifier ""mult"" 0) (TypingContext ((ContextBinding (Identifier ""l"" 0) Prd (Decl (Identifier ""List[i64]"" 0))) (ContextBinding (Identifier ""a0"" 0) Cns I64))) (Call (Call (Identifier ""foldr"" 0) (Arguments ((Producer (XCase (XCase Prd ((Clause Prd (Identifier ""apply2"" 0) (TypingContext ((ContextBinding (Identifier ""x"" 0) Prd I64) (ContextBinding (Identifier ""y"" 0) Prd I64) (ContextBinding (Identifier ""a1"" 0) Cns I64))) (Cut (Cut (Op (Op (XVar (XVar Prd (Identifier ""x"" 0) I64)) Prod (XVar (XVar Prd (Identifier ""y"" 0) I64)))) I64 (XVar (XVar Cns (Identifier ""a1"" 0) I64)))))) (Decl (Identifier ""Fun2[i64, i64, i64]"" 0))))) (Producer (Literal (Literal 1))) (Producer (XVar (XVar Prd (Identifier ""l"" 0) (Decl (Identifier ""List[i64]"" 0))))) (Consumer (XVar (XVar Cns (Identifier ""a0"" 0) I64))))) I64)))) ((TypeDeclaration Data (Identifier ""List[i64]"" 0) ((XtorSig Data (Identifier ""Nil"" 0) (TypingContext ())) (XtorSig Data (Identifier ""Cons"" 0) (TypingContext ((ContextBinding (Identifier ""x"" 0) Prd I64) (ContextBinding (Identifier ""xs"" 0) Prd (Decl (Identifier ""List[i64]"" 0))))))))) ((TypeDeclaration Codata (Identifier ""Fun2[i64, i64, i64]"" 0) ((XtorSig Codata (Identifier ""apply2"" 0) (TypingContext ((ContextBinding (Identifier ""x"" 0) Prd I64) (ContextBinding (Identifier ""y"" 0) Prd I64) (ContextBinding (Identifier ""a0"" 0) Cns I64)))))) (TypeDeclaration Codata (Identifier ""Fun[i64, i64]"" 0) ((XtorSig Codata (Identifier ""apply"" 0) (TypingContext ((ContextBinding (Identifier ""x"" 0) Prd I64) (ContextBinding (Identifier ""a0"" 0) Cns I64))))))) 0)".
Example ex_lists_pre : pre_ok ex_lists = true.
Proof. vm_compute. reflexivity. Qed.
Example ex_lists_focus_unique : focus_ok ex_lists = true.
Proof. vm_compute. reflexivity. Qed.

(* file:/repo/testsuite/success_check/case_of.sc *)
Definition ex_case_of : string :=
  "(Prog ((Def (Identifier ""isEmpty"" 0) (TypingContext ((ContextBinding (Identifier ""xs"" 0) Prd (Decl (Identifier ""List[i64]"" 0))) (ContextBinding (Identifier ""a0"" 0) Cns I64))) (Cut (Cut (XVar (XVar Prd (Identifier ""xs"" 0) (Decl (Identifier ""List[i64]"" 0)))) (Decl (Identifier ""List[i64]"" 0)) (XCase (XCase Cns ((Clause Cns (Identifier ""Nil"" 0) (TypingContext ()) (Cut (Cut (Literal (Literal 0)) I64 (XVar (XVar Cns (Identifier ""a0"" 0) I64))))) (Clause Cns (Identifier ""Cons"" 0) (TypingContext ((ContextBinding (Identifier ""x"" 0) Prd I64) (ContextBinding (Identifier ""xs"" 0) Prd (Decl (Identifier ""List[i64]"" 0))))) (Cut (Cut (Literal (Literal 1)) I64 (XVar (XVar Cns (Identifier ""a0"" 0) I64)))))) (Decl (Identifier ""List[i64]"" 0))))))) (Def (Identifier ""safeHead"" 0) (TypingContext ((ContextBinding (Identifier ""xs"" 0) Prd (Decl (Identifier ""List[i64]"" 0))) (ContextBinding (Identifier ""a0"" 0) Cns I64))) (Cut (Cut (XVar (XVar Prd (Identifier ""xs"" 0) (Decl (Identifier ""List[i64]"" 0)))) (Decl (Identifier ""List[i64]"" 0)) (XCase (XCase Cns ((Clause Cns (Identifier ""Nil"" 0) (TypingContext ()) (Cut (Cut (Literal (Literal 0)) I64 (XVar (XVar Cns (Identifier ""a0"" 0) I64))))) (Clause Cns (Identifier ""Cons"" 0) (TypingContext ((ContextBinding (Identifier ""y"" 0) Prd I64) (ContextBinding (Identifier ""ys"" 0) Prd (Decl (Identifier ""List[i64]"" 0))))) (Cut (Cut (XVar (XVar Prd (Identifier ""y"" 0) I64)) I64 (XVar (XVar Cns (Identifier ""a0"" 0) I64)))))) (Decl (Identifier ""List[i64]"" 0)))))))) ((TypeDeclaration Data (Identifier ""List[i64]"" 0) ((XtorSig Data (Identifier ""Nil"" 0) (TypingContext ())) (XtorSig Data (Identifier ""Cons"" 0) (TypingContext ((ContextBinding (Identifier ""x"" 0) Prd I64) (ContextBinding (Identifier ""xs"" 0) Prd (Decl (Identifier ""List[i64]"" 0))))))))) () 0)".
Example ex_case_of_pre : pre_ok ex_case_of = true.
Proof. vm_compute. reflexivity. Qed.
Example ex_case_of_focus_unique : focus_ok ex_case_of = true.
Proof. vm_compute. reflexivity. Qed.

(* gen:3 *)
Definition ex_gen3 : string :=
  "(Prog ((Def (Identifier ""main"" 0) (TypingContext ((ContextBinding (Identifier ""x"" 0) Prd I64) (ContextBinding (Identifier ""j"" 0) Prd I64) (ContextBinding (Identifier ""n"" 0) Prd I64) (ContextBinding (Identifier ""tmp"" 0) Prd I64))) (Cut (Cut (Literal (Literal -5)) I64 (Mu (Mu Cns (Identifier ""x0"" 0) (Exit (Exit (XVar (XVar Prd (Identifier ""x0"" 0) I64)) I64)) I64))))) (Def (Identifier ""fold"" 0) (TypingContext ((ContextBinding (Identifier ""xs"" 0) Prd (Decl (Identifier ""Opt[i64]"" 0))) (ContextBinding (Identifier ""a0"" 0) Cns (Decl (Identifier ""Stream[i64]"" 0))))) (Cut (Cut (XCase (XCase Prd ((Clause Prd (Identifier ""head"" 0) (TypingContext ((ContextBinding (Identifier ""a1"" 0) Cns I64))) (Cut (Cut (XCase (XCase Prd ((Clause Prd (Identifier ""len"" 0) (TypingContext ((ContextBinding (Identifier ""main"" 0) Prd I64) (ContextBinding (Identifier ""a3"" 0) Cns I64))) (Cut (Cut (XVar (XVar Prd (Identifier ""main"" 0) I64)) I64 (XVar (XVar Cns (Identifier ""a3"" 0) I64))))) (Clause Prd (Identifier ""rev"" 0) (TypingContext ((ContextBinding (Identifier ""w"" 0) Prd I64) (ContextBinding (Identifier ""i"" 0) Prd I64) (ContextBinding (Identifier ""rev"" 0) Prd I64) (ContextBinding (Identifier ""a4"" 0) Cns (Decl (Identifier ""Expr[i64, i64]"" 0))))) (Cut (Cut (Xtor (Xtor Prd (Identifier ""B8"" 0) (Arguments ()) (Decl (Identifier ""Expr[i64, i64]"" 0)))) (Decl (Identifier ""Expr[i64, i64]"" 0)) (Mu (Mu Cns (Identifier ""tail"" 0) (Cut (Cut (XVar (XVar Prd (Identifier ""tail"" 0) (Decl (Identifier ""Expr[i64, i64]"" 0)))) (Decl (Identifier ""Expr[i64, i64]"" 0)) (XVar (XVar Cns (Identifier ""a4"" 0) (Decl (Identifier ""Expr[i64, i64]"" 0)))))) (Decl (Identifier ""Expr[i64, i64]"" 0))))))) (Clause Prd (Identifier ""apply2"" 0) (TypingContext ((ContextBinding (Identifier ""n"" 0) Prd I64) (ContextBinding (Identifier ""l"" 0) Prd (Decl (Identifier ""Color1"" 0))) (ContextBinding (Identifier ""z"" 0) Prd I64) (ContextBinding (Identifier ""a5"" 0) Cns I64))) (Cut (Cut (XVar (XVar Prd (Identifier ""n"" 0) I64)) I64 (XVar (XVar Cns (Identifier ""a5"" 0) I64)))))) (Decl (Identifier ""Cont[i64]"" 0)))) (Decl (Identifier ""Cont[i64]"" 0)) (Xtor (Xtor Cns (Identifier ""len"" 0) (Arguments ((Producer (Mu (Mu Prd (Identifier ""a2"" 0) (Cut (Cut (Literal (Literal 4)) I64 (Mu (Mu Cns (Identifier ""tmp"" 0) (IfC (IfC Less (XVar (XVar Prd (Identifier ""tmp"" 0) I64)) None (Cut (Cut (XVar (XVar Prd (Identifier ""tmp"" 0) I64)) I64 (XVar (XVar Cns (Identifier ""a2"" 0) I64)))) (Cut (Cut (Literal (Literal -560)) I64 (XVar (XVar Cns (Identifier ""a2"" 0) I64)))))) I64)))) I64))) (Consumer (XVar (XVar Cns (Identifier ""a1"" 0) I64))))) (Decl (Identifier ""Cont[i64]"" 0))))))) (Clause Prd (Identifier ""tail"" 0) (TypingContext ((ContextBinding (Identifier ""a6"" 0) Cns (Decl (Identifier ""Stream[i64]"" 0))))) (Call (Call (Identifier ""fold"" 0) (Arguments ((Producer (Xtor (Xtor Prd (Identifier ""Some"" 0) (Arguments ((Producer (Mu (Mu Prd (Identifier ""a7"" 0) (PrintI64 (PrintI64 false (Literal (Literal 4)) (Cut (Cut (Literal (Literal 7)) I64 (XVar (XVar Cns (Identifier ""a7"" 0) I64)))))) I64))))) (Decl (Identifier ""Opt[i64]"" 0))))) (Consumer (XVar (XVar Cns (Identifier ""a6"" 0) (Decl (Identifier ""Stream[i64]"" 0))))))) (Decl (Identifier ""Stream[i64]"" 0)))))) (Decl (Identifier ""Stream[i64]"" 0)))) (Decl (Identifier ""Stream[i64]"" 0)) (XVar (XVar Cns (Identifier ""a0"" 0) (Decl (Identifier ""Stream[i64]"" 0)))))))) ((TypeDeclaration Data (Identifier ""Expr[i64, i64]"" 0) ((XtorSig Data (Identifier ""B8"" 0) (TypingContext ())) (XtorSig Data (Identifier ""K2"" 0) (TypingContext ((ContextBinding (Identifier ""n"" 0) Prd I64) (ContextBinding (Identifier ""l"" 0) Prd (Decl (Identifier ""Expr[i64, i64]"" 0))) (ContextBinding (Identifier ""k"" 0) Prd I64)))) (XtorSig Data (Identifier ""C2"" 0) (TypingContext ((ContextBinding (Identifier ""n"" 0) Cns I64)))))) (TypeDeclaration Data (Identifier ""Opt[i64]"" 0) ((XtorSig Data (Identifier ""None"" 0) (TypingContext ())) (XtorSig Data (Identifier ""Some"" 0) (TypingContext ((ContextBinding (Identifier ""x"" 0) Prd I64))))))) ((TypeDeclaration Codata (Identifier ""Cont[i64]"" 0) ((XtorSig Codata (Identifier ""len"" 0) (TypingContext ((ContextBinding (Identifier ""n"" 0) Prd I64) (ContextBinding (Identifier ""a0"" 0) Cns I64)))) (XtorSig Codata (Identifier ""rev"" 0) (TypingContext ((ContextBinding (Identifier ""c"" 0) Prd I64) (ContextBinding (Identifier ""g"" 0) Prd I64) (ContextBinding (Identifier ""h"" 0) Prd I64) (ContextBinding (Identifier ""a0"" 0) Cns (Decl (Identifier ""Expr[i64, i64]"" 0)))))) (XtorSig Codata (Identifier ""apply2"" 0) (TypingContext ((ContextBinding (Identifier ""e"" 0) Prd I64) (ContextBinding (Identifier ""h"" 0) Prd (Decl (Identifier ""Color1"" 0))) (ContextBinding (Identifier ""d"" 0) Prd I64) (ContextBinding (Identifier ""a0"" 0) Cns I64)))))) (TypeDeclaration Codata (Identifier ""Stream[i64]"" 0) ((XtorSig Codata (Identifier ""head"" 0) (TypingContext ((ContextBinding (Identifier ""a0"" 0) Cns I64)))) (XtorSig Codata (Identifier ""tail"" 0) (TypingContext ((ContextBinding (Identifier ""a0"" 0) Cns (Decl (Identifier ""Stream[i64]"" 0))))))))) 0)".
Example ex_gen3_pre : pre_ok ex_gen3 = true.
Proof. vm_compute. reflexivity. Qed.
Example ex_gen3_focus_unique : focus_ok ex_gen3 = true.
Proof. vm_compute. reflexivity. Qed.

