(* Programs generate well-formed allocator traces.
   For a linearity-checked program, in every configuration reachable by the instrumented machine of
   Sem/AxHeap.v:
     - the abstract heap satisfies the strengthened counting invariant InvA with the roots being
       exactly the non-null pointers of the environment (with multiplicity);
     - every value of the environment is represented at its pointer (`rep`), chains are owned (`KI`);
     - the environment is the typing context of the statement (`cfg_wt`);
   and every allocator operation the machine emits satisfies its precondition `pre` in the state
   in which it is executed - so the whole operation trace of a run satisfies `pre_trace` from the
   initial allocator state, and the theorems of Proof/HeapTrace.v apply to programs. *)
From Coq Require Import List ZArith NArith Bool Lia Permutation.
From SCC Require Import Base.Sexp Lang.AxSyn Sem.AxSem Model.Linearize Model.LinCheck Sem.AxHeap.
From SCC Require Import Proof.LinBasics Proof.LinTyping Proof.LinMachine Proof.AxHeapErase Proof.AxHeapTyping.
From SCC Require Import Model.Heap Proof.HeapMore Proof.HeapTrace Proof.HeapRep Proof.HeapRepAlloc Proof.HeapRepLoad
  Proof.HeapRepSubst Proof.HeapTracePerm Proof.AxHeapSubst.
Import ListNotations.
Open Scope list_scope.

(* the invariant of a configuration *)
Definition env_rep (lk : lkmap) (hs : st) (he : henv) : Prop := reps lk (m hs) (map h_val he) (ptrs he).
Definition HInv (base : Z) (he : henv) (hs : st) : Prop :=
  exists lk, (exists hl fl cl, InvA base hs (roots he) hl fl cl) /\ KI lk hs (roots he) /\ env_rep lk hs he.

Lemma ptrs_app a b : ptrs (a ++ b) = ptrs a ++ ptrs b.
Proof. apply map_app. Qed.
Lemma roots_app a b : roots (a ++ b) = roots a ++ roots b.
Proof. unfold roots. now rewrite ptrs_app, nz_app. Qed.
Lemma ptrs_attach : forall e pl, length e = length pl -> ptrs (attach e pl) = pl.
Proof. induction e as [|xv e IH]; intros [|q pl] L; cbn in *; try discriminate; auto. unfold ptrs in IH. rewrite IH; auto. Qed.
Lemma vals_attach : forall e pl, map h_val (attach e pl) = map snd e.
Proof. induction e as [|xv e IH]; intros pl; cbn; auto. destruct pl; cbn; now rewrite IH. Qed.
Lemma ptrs_length he : length (ptrs he) = length he.
Proof. apply map_length. Qed.

Lemma reps_ptrs_ok lk mm he : reps lk mm (map h_val he) (ptrs he) -> ptrs_ok he.
Proof.
  induction he as [|en he IH]; intros H e He; [destruct He|]. cbn in H. inversion H; subst.
  destruct He as [<-|He]; [|apply IH; auto]. intros E.
  match goal with Hr : rep _ _ (h_val en) _ |- _ => destruct Hr; cbn in E; try discriminate; reflexivity end.
Qed.
Lemma store_ptr_ok he : ptrs_ok he -> map store_ptr he = ptrs he.
Proof.
  intros H. apply map_ext_in. intros en He. unfold store_ptr. destruct (chi_of (h_val en)) eqn:E; auto.
  symmetry. apply H; auto.
Qed.

Lemma lin_wt_nodup S c s : lin_wt S c s -> NoDup (ids c).
Proof. destruct 1; auto. Qed.
Lemma cfg_wt_nodup p he s : cfg_wt p he s -> NoDup (hids he).
Proof.
  intros (c & W & E). rewrite <- hids_erase, (env_wt_ids _ _ _ E). eapply lin_wt_nodup; eauto.
Qed.

Lemma lastn_app_exact {A} n (l1 l2 : list A) : length l2 = n -> lastn n (l1 ++ l2) = l2.
Proof.
  intros L. unfold lastn. rewrite app_length, L. replace (length l1 + n - n)%nat with (length l1) by lia.
  rewrite skipn_app, Nat.sub_diag, skipn_all. reflexivity.
Qed.

Lemma hrun_grun ops s R : hrun ops s = fst (grun ops (s, R)).
Proof. symmetry. apply grun_fst. Qed.

Lemma env_rep_app_inv lk hs he0 fs : env_rep lk hs (he0 ++ fs) ->
  reps lk (m hs) (map h_val he0) (ptrs he0) /\ reps lk (m hs) (map h_val fs) (ptrs fs).
Proof.
  unfold env_rep. rewrite map_app, ptrs_app. intros ER.
  destruct (reps_app_inv _ _ _ _ _ ER) as (p1 & p2 & Ep & R0 & Rf).
  assert (L1 : length p1 = length (ptrs he0)) by (rewrite (reps_length _ _ _ _ R0), map_length, ptrs_length; reflexivity).
  apply app_inv_length in Ep as [<- <-]; [auto|symmetry; exact L1].
Qed.

(* allocation of the last entries of the environment as a new object *)
Lemma store_safe base lk he0 fs hs v (val : value) :
  (exists hl fl cl, InvA base hs (roots (he0 ++ fs)) hl fl cl) -> KI lk hs (roots (he0 ++ fs)) ->
  env_rep lk hs (he0 ++ fs) ->
  (forall lk' mm, reps lk' mm (map h_val fs) (ptrs fs) ->
                  (fs = [] -> rep lk' mm val 0) /\
                  (forall q, rep_flds lk' mm (map h_val fs) q -> rep lk' mm val q)) ->
  let fields := map store_ptr fs in
  let ops := [OAllocObj fields] in
  let he' := he0 ++ [(v, val, fst (alloc_object fields hs))] in
  pre_trace hs (roots (he0 ++ fs)) ops /\
  Permutation (snd (grun ops (hs, roots (he0 ++ fs)))) (roots he') /\
  HInv base he' (hrun ops hs).
Proof.
  intros (hl & fl & cl & IA) K ER Hval fields ops he'.
  destruct (env_rep_app_inv _ _ _ _ ER) as [R0 Rf].
  pose proof (reps_ptrs_ok _ _ _ Rf) as PO. assert (Ef : fields = ptrs fs) by (apply store_ptr_ok; exact PO).
  assert (HP : Permutation (roots (he0 ++ fs)) (nz fields ++ roots he0)).
  { rewrite roots_app, Ef. apply Permutation_app_comm. }
  assert (Pre : pre_trace hs (roots (he0 ++ fs)) ops).
  { cbn. split; auto. eapply sub_ok_app; eauto. }
  split; [exact Pre|].
  unfold ops, hrun. cbn [grun fold_left gstep fst snd step ghost].
  destruct fs as [|en fs'].
  - (* nothing to store: pointer 0 *)
    cbn in Ef. subst fields. unfold he'. cbn [map alloc_object fst snd]. rewrite !roots_app. cbn [roots ptrs map nz filter Z.eqb negb h_ptr snd].
    rewrite !app_nil_r. split; [reflexivity|].
    exists lk. rewrite roots_app. cbn [roots ptrs map nz filter Z.eqb negb h_ptr snd]. rewrite app_nil_r.
    rewrite roots_app in IA, K. cbn [roots ptrs map nz filter] in IA, K. rewrite app_nil_r in IA, K.
    split; [eauto|]. split; [exact K|].
    unfold env_rep. rewrite map_app, ptrs_app. apply reps_app; [exact R0|]. cbn. constructor; [|constructor].
    destruct (Hval lk (m hs) Rf) as [Hv _]. apply Hv. reflexivity.
  - set (fs := en :: fs') in *.
    assert (Hne : fields <> []) by (rewrite Ef; discriminate).
    destruct (alloc_object_rep base lk hs _ (roots he0) hl fl cl fields IA K HP Hne)
      as (lk' & j' & hl' & fl' & cl' & I1 & K1 & N1 & Hlk & HL & HF & Fr).
    cbn zeta in *. set (r := alloc_object fields hs) in *.
    assert (Eg : match fields with [] => roots (he0 ++ fs) | _ => fst r :: msub (roots (he0 ++ fs)) (nz fields) end
                 = fst r :: msub (roots (he0 ++ fs)) (nz fields)) by (destruct fields; [congruence|reflexivity]).
    rewrite Eg. clear Eg.
    assert (Er : roots he' = roots he0 ++ [fst r]).
    { unfold he'. rewrite roots_app. cbn [roots ptrs map h_ptr snd nz filter]. destruct (Z.eqb_spec (fst r) 0); [contradiction|reflexivity]. }
    split.
    + rewrite Er. etransitivity; [apply perm_skip, (msub_app _ _ _ HP)|]. apply Permutation_cons_append.
    + exists lk'. rewrite Er. split; [|split].
      * exists hl', fl', cl'. eapply invA_perm_R; [|exact I1]. apply Permutation_cons_append.
      * eapply KI_perm; [|exact K1]. apply Permutation_cons_append.
      * (* representation: old entries by the frame, the new object by construction *)
        assert (Hfr : forall pl, (forall q, In q pl -> q <> 0%Z -> In q (roots (he0 ++ fs))) ->
                  forall b, reach (m hs) pl b -> ps (m (snd r) b) = ps (m hs b) /\ lk' b = lk b).
        { intros pl Hpl b Hb. destruct (Fr b) as (A & B & _); [|auto].
          eapply reach_trans; [|exact Hb]. intros q Hq Hq0. apply reach_src; auto. }
        assert (R0' : reps lk' (m (snd r)) (map h_val he0) (ptrs he0)).
        { eapply reps_frame; [exact R0|]. apply Hfr. intros q Hq Hq0. rewrite roots_app, in_app_iff. left. apply in_nz. auto. }
        assert (Rf' : reps lk' (m (snd r)) (map h_val fs) (ptrs fs)).
        { eapply reps_frame; [exact Rf|]. apply Hfr. intros q Hq Hq0. rewrite roots_app, in_app_iff. right. apply in_nz. auto. }
        unfold env_rep, he'. rewrite map_app, ptrs_app. apply reps_app; [exact R0'|]. cbn [map ptrs h_val h_ptr fst snd].
        constructor; [|constructor]. apply (Hval lk' (m (snd r)) Rf').
        apply (rf_cons lk' (m (snd r)) (map h_val fs) (fst r) j' (ptrs fs)).
        -- discriminate.
        -- rewrite Hlk, Ef, map_length, ptrs_length. reflexivity.
        -- exact HL.
        -- rewrite HF, Ef. reflexivity.
        -- exact Rf'.
Qed.

(* loading the fields of the last entry of the environment *)
Lemma load_safe base lk he0 x (val : value) q hs vals (e1 : env) :
  (exists hl fl cl, InvA base hs (roots (he0 ++ [(x, val, q)])) hl fl cl) -> KI lk hs (roots (he0 ++ [(x, val, q)])) ->
  reps lk (m hs) (map h_val he0) (ptrs he0) -> rep_flds lk (m hs) vals q ->
  map snd e1 = vals ->
  let n := length vals in
  let ops := load_ops n q in
  let pl := load_ptrs hs n q in
  pre_trace hs (roots (he0 ++ [(x, val, q)])) ops /\
  Permutation (snd (grun ops (hs, roots (he0 ++ [(x, val, q)])))) (roots he0 ++ nz pl) /\
  (exists lk', (exists hl fl cl, InvA base (hrun ops hs) (roots he0 ++ nz pl) hl fl cl) /\
               KI lk' (hrun ops hs) (roots he0 ++ nz pl) /\
               reps lk' (m (hrun ops hs)) (map h_val he0) (ptrs he0) /\
               reps lk' (m (hrun ops hs)) vals pl).
Proof.
  intros (hl & fl & cl & IA) K R0 RF E1.
  destruct RF as [|vals q j pl0 Hne Hlk HL HF RS]; intros n ops pl;
    rewrite roots_app in *; cbn [roots ptrs map h_ptr snd] in *.
  - (* no field: nothing happens, the pointer is null *)
    assert (Epl : pl = []) by (unfold pl, load_ptrs, lastn, n; cbn [length]; rewrite Nat.sub_0_r; apply skipn_all).
    rewrite Epl. unfold ops, n. cbn [length load_ops nz filter hrun fold_left grun snd pre_trace Z.eqb negb] in *.
    rewrite !app_nil_r in *. split; [exact I|]. split; [reflexivity|].
    exists lk. split; [eauto|]. split; [exact K|]. split; [exact R0|constructor].
  - assert (Hq0 : q <> 0%Z) by exact (links_ok_head _ _ _ HL).
    assert (Hn : n <> O) by (unfold n; destruct vals; [congruence|discriminate]).
    assert (Eops : ops = [OLoadObj (nlinks n) q]) by (unfold ops, load_ops; destruct n; [congruence|reflexivity]).
    assert (Epl : pl = pl0).
    { unfold pl, load_ptrs, n. rewrite <- Hlk, HF. apply lastn_app_exact. apply (reps_length _ _ _ _ RS). }
    change (roots [(x, val, q)]) with (nz [q]) in *. cbn [nz filter] in *. destruct (Z.eqb_spec q 0) as [|_]; [contradiction|]. cbn [negb] in *.
    assert (HP : Permutation (roots he0 ++ [q]) (q :: roots he0)) by (symmetry; apply Permutation_cons_append).
    destruct (load_object_KI base lk hs _ (roots he0) hl fl cl q (nlinks n) j pl0 IA K HP Hq0 Hlk ltac:(unfold n; rewrite <- Hlk; exact HF))
      as (Pre & (hl' & fl' & cl' & I1) & K1).
    rewrite Eops, Epl. unfold hrun. cbn [pre_trace grun fold_left gstep fst snd step ghost].
    split; [auto|]. split.
    + unfold n. rewrite <- Hlk, HF, nz_app, nz_repeat0. cbn [app].
      etransitivity; [apply Permutation_app_head, rem1_perm_cong, HP|]. cbn [rem1]. destruct (Z.eq_dec q q); [|congruence].
      apply Permutation_app_comm.
    + exists lk. split; [|split; [|split]].
      * exists hl', fl', cl'. eapply invA_perm_R; [|exact I1]. apply Permutation_app_comm.
      * eapply KI_perm; [|exact K1]. apply Permutation_app_comm.
      * eapply reps_ext; [|exact R0]. intros; apply load_object_ps.
      * eapply reps_ext; [|exact RS]. intros; apply load_object_ps.
Qed.

Theorem hstep_safe base p he hs s ops he' s' pr :
  cfg_wt p he s -> HInv base he hs -> hstep p he hs s = HStep ops he' s' pr ->
  pre_trace hs (roots he) ops /\
  Permutation (snd (grun ops (hs, roots he))) (roots he') /\
  HInv base he' (hrun ops hs).
Proof.
  intros W (lk & IAe & K & ER) HS. pose proof (cfg_wt_nodup _ _ _ W) as ND.
  assert (Triv : forall he1, roots he1 = roots he -> env_rep lk hs he1 ->
            pre_trace hs (roots he) [] /\ Permutation (snd (grun [] (hs, roots he))) (roots he1) /\ HInv base he1 (hrun [] hs)).
  { intros he1 Er Re. cbn. split; [exact I|]. split; [now rewrite Er|]. exists lk. rewrite Er. auto. }
  destruct s as [re next|l args|v t tag args next|v t cls|v t [cenv|] cls next|v tag t args|n v next|a o b v next|nl v next|so a b t el|v];
    cbn [hstep] in HS.
  - (* substitute *)
    destruct (hsubst he re) as [he1|] eqn:HSu; [|discriminate]. inversion HS; subst. clear HS.
    pose proof (reps_ptrs_ok _ _ _ ER) as PO. destruct IAe as (hl & fl & cl & IA).
    rewrite subst_ops_acts. set (acts := flat_map (actf he) (Backend.transpose re (ctx_of he))).
    pose proof (acts_perm he re ND) as HPa. fold acts in HPa.
    assert (HP : Permutation (roots he) (nz (map fst acts) ++ [])).
    { rewrite app_nil_r, <- (roots_acts he re PO). apply nz_perm, Permutation_map. symmetry. exact HPa. }
    destruct (acts_ok base lk acts hs (roots he) [] hl fl cl IA K HP) as (A & B & (hl' & fl' & cl' & I1) & K1 & F).
    cbn zeta in *. rewrite app_nil_r in B.
    assert (HR : Permutation (snd (grun (flat_map act_ops acts) (hs, roots he))) (roots he')).
    { etransitivity; [exact B|]. etransitivity; [apply Permutation_flat_map; exact HPa|].
      rewrite act_roots_of by exact PO. symmetry. apply hsubst_roots; auto. }
    split; [exact A|]. split; [exact HR|].
    exists lk. rewrite (hrun_grun _ _ (roots he)). split; [|split].
    + exists hl', fl', cl'. eapply invA_perm_R; eauto.
    + eapply KI_perm; eauto.
    + unfold env_rep. apply (reps_ext lk (m hs)); [intros; apply F|].
      (* every new entry is an old entry *)
      clear -HSu ER. unfold env_rep in ER. revert he' HSu. induction re as [|[nb old] re IH]; intros he' HSu; cbn [hsubst] in HSu.
      * inversion HSu; subst. constructor.
      * destruct (hlookup he (idn old)) as [en0|] eqn:HL; [|discriminate].
        destruct (hsubst he re) as [he1|]; [|discriminate]. inversion HSu; subst. cbn. constructor; [|apply IH; reflexivity].
        apply hlookup_Some in HL as [Hin _]. clear -Hin ER. induction he as [|e he IH]; [destruct Hin|].
        cbn in ER. inversion ER; subst. destruct Hin as [->|Hin]; auto.
  - (* call *)
    destruct (find_def p l) as [d|]; [|discriminate].
    destruct (bind (vars (dctx d)) (map snd (erase_env he))) as [e1|] eqn:B; [|discriminate]. inversion HS; subst. clear HS.
    apply bind_Some_length in B as [L ->].
    assert (Lc : length (combine (vars (dctx d)) (map snd (erase_env he))) = length (ptrs he)).
    { rewrite combine_length, L, Nat.min_id, map_length, erase_length, ptrs_length. reflexivity. }
    apply Triv.
    + unfold roots. now rewrite ptrs_attach.
    + unfold env_rep. rewrite ptrs_attach, vals_attach, combine_map_snd, map_snd_erase by auto. exact ER.
  - (* let *)
    destruct (ty_name t) as [tn|]; [|discriminate].
    destruct (AxSem.split_last (length args) he) as [[he0 fs]|] eqn:SL; [|discriminate].
    destruct (ids_eqb _ _); [|discriminate]. inversion HS; subst. clear HS.
    apply split_last_Some_app in SL as [-> _].
    apply (store_safe base lk he0 fs hs v (VObj tn tag (map h_val fs))); auto.
    intros lk' mm Rf. split.
    + intros ->. constructor. constructor.
    + intros q Hq. constructor. exact Hq.
  - (* switch *)
    destruct (AxSem.split_last 1 he) as [[he0 l]|] eqn:SL; [|discriminate].
    destruct l as [|[[x v0] q] [|en2 l]]; [discriminate| |destruct v0; discriminate].
    destruct v0 as [z|ty tg fs|ty cs ce]; [discriminate| |discriminate].
    destruct (N.eqb (idn x) (idn v)); [|discriminate].
    destruct (find_clause cls tg) as [c|]; [|discriminate].
    destruct (bind (vars (cl_ctx c)) fs) as [e1|] eqn:B; [|discriminate]. inversion HS; subst. clear HS.
    apply split_last_Some_app in SL as [-> _]. apply bind_Some_length in B as [L ->].
    destruct (env_rep_app_inv _ _ _ _ ER) as [R0 Rf].
    cbn in Rf. inversion Rf as [|? ? ? ? Rv _]; subst. inversion Rv; subst.
    rewrite vars_length in L. rewrite L.
    destruct (load_safe base lk he0 x (VObj ty tg fs) q hs fs (combine (vars (cl_ctx c)) fs) IAe K R0 ltac:(assumption))
      as (Pre & HR & lk' & I1 & K1 & R0' & Rf').
    { apply combine_map_snd. now rewrite vars_length. }
    cbn zeta in *.
    assert (Lp : length (combine (vars (cl_ctx c)) fs) = length (load_ptrs hs (length fs) q)).
    { rewrite (reps_length _ _ _ _ Rf'), combine_length, vars_length, L, Nat.min_id. reflexivity. }
    assert (Er : roots (he0 ++ attach (combine (vars (cl_ctx c)) fs) (load_ptrs hs (length fs) q)) = roots he0 ++ nz (load_ptrs hs (length fs) q)).
    { rewrite roots_app. unfold roots at 2. now rewrite ptrs_attach. }
    unfold HInv. rewrite Er. split; [exact Pre|]. split; [exact HR|].
    exists lk'. split; [exact I1|]. split; [exact K1|].
    unfold env_rep. rewrite map_app, ptrs_app, ptrs_attach, vals_attach, combine_map_snd by (auto; now rewrite vars_length).
    apply reps_app; auto.
  - (* create *)
    destruct (ty_name t) as [tn|]; [|discriminate].
    destruct (AxSem.split_last (length cenv) he) as [[he0 cap]|] eqn:SL; [|discriminate].
    destruct (ids_eqb _ _); [|discriminate].
    destruct (bind (vars cenv) (map h_val cap)) as [ce|] eqn:B; [|discriminate]. inversion HS; subst. clear HS.
    apply split_last_Some_app in SL as [-> _]. apply bind_Some_length in B as [L ->].
    assert (Es : map snd (combine (vars cenv) (map h_val cap)) = map h_val cap) by (apply combine_map_snd; exact L).
    apply (store_safe base lk he0 cap hs v (VClo tn cls (combine (vars cenv) (map h_val cap)))); auto.
    intros lk' mm Rf. split.
    + intros ->. constructor. rewrite Es. constructor.
    + intros q Hq. constructor. rewrite Es. exact Hq.
  - discriminate.
  - (* invoke *)
    destruct (AxSem.split_last 1 he) as [[he0 l]|] eqn:SL; [|discriminate].
    destruct l as [|[[x v0] q] [|en2 l]]; [discriminate| |destruct v0; discriminate].
    destruct v0 as [z|ty tg fs|ty cs ce]; [discriminate|discriminate|].
    destruct (N.eqb (idn x) (idn v)); [|discriminate].
    destruct (find_clause cs tag) as [c|]; [|discriminate].
    destruct (bind (vars (cl_ctx c)) (map snd (erase_env he0))) as [e1|] eqn:B; [|discriminate]. inversion HS; subst. clear HS.
    apply split_last_Some_app in SL as [-> _]. apply bind_Some_length in B as [L ->].
    destruct (env_rep_app_inv _ _ _ _ ER) as [R0 Rf].
    cbn in Rf. inversion Rf as [|? ? ? ? Rv _]; subst. inversion Rv; subst.
    destruct (load_safe base lk he0 x (VClo ty cs ce) q hs (map snd ce) ce IAe K R0 ltac:(assumption) eq_refl)
      as (Pre & HR & lk' & I1 & K1 & R0' & Rf').
    cbn zeta in *. rewrite (map_length snd ce) in *.
    assert (Lp : length ce = length (load_ptrs hs (length ce) q)).
    { rewrite (reps_length _ _ _ _ Rf'), map_length. reflexivity. }
    assert (L0 : length (combine (vars (cl_ctx c)) (map snd (erase_env he0))) = length (ptrs he0)).
    { rewrite combine_length, ptrs_length. pose proof L as L'. rewrite ?map_length, ?erase_length in L'.
      rewrite ?map_length, ?erase_length. lia. }
    assert (Er : roots (attach (combine (vars (cl_ctx c)) (map snd (erase_env he0))) (ptrs he0) ++ attach ce (load_ptrs hs (length ce) q))
                 = roots he0 ++ nz (load_ptrs hs (length ce) q)).
    { rewrite roots_app. unfold roots. now rewrite !ptrs_attach. }
    unfold HInv. rewrite Er. split; [exact Pre|]. split; [exact HR|].
    exists lk'. split; [exact I1|]. split; [exact K1|].
    unfold env_rep. rewrite map_app, ptrs_app, !ptrs_attach, !vals_attach, combine_map_snd, map_snd_erase by auto.
    apply reps_app; auto.
  - (* literal *)
    inversion HS; subst. apply Triv.
    + rewrite roots_app. cbn. now rewrite app_nil_r.
    + unfold env_rep. rewrite map_app, ptrs_app. apply reps_app; [exact ER|]. cbn. constructor; constructor.
  - (* op *)
    destruct (lookup_int (erase_env he) a); [|discriminate]. destruct (lookup_int (erase_env he) b); [|discriminate].
    destruct (eval_op o z z0); [|discriminate]. inversion HS; subst. apply Triv.
    + rewrite roots_app. cbn. now rewrite app_nil_r.
    + unfold env_rep. rewrite map_app, ptrs_app. apply reps_app; [exact ER|]. cbn. constructor; constructor.
  - (* print *)
    destruct (lookup_int (erase_env he) v); [|discriminate]. inversion HS; subst. apply Triv; auto.
  - (* ifc *)
    destruct (lookup_int (erase_env he) a); [|discriminate].
    destruct (match b with Some b0 => lookup_int (erase_env he) b0 | None => Some 0%Z end); [|discriminate].
    inversion HS; subst. apply Triv; auto.
  - (* exit *)
    destruct (lookup_int (erase_env he) v); discriminate.
Qed.

Lemma attach_nil_roots : forall e, roots (attach e []) = [].
Proof. induction e as [|xv e IH]; cbn; auto. Qed.
Lemma ints_rep lk mm : forall e, (forall xv, In xv e -> exists z, snd xv = VInt z) ->
  reps lk mm (map h_val (attach e [])) (ptrs (attach e [])).
Proof.
  induction e as [|xv e IH]; intros H; cbn; constructor.
  - destruct (H xv (or_introl eq_refl)) as (z & E). unfold h_val; cbn. rewrite E. constructor.
  - apply IH. intros; apply H; now right.
Qed.
Lemma hinit_inv base d e args : (0 < base)%Z -> entry_env d args = Some e -> HInv base (hc_env (hinit base d e)) (hc_heap (hinit base d e)).
Proof.
  intros Hb EN. unfold hinit; cbn [hc_env hc_heap]. exists (fun _ => O). rewrite attach_nil_roots. split; [|split].
  - exists [base], [], []. now apply init_invA.
  - intros x Hx. inversion Hx; subst; cbn in *; tauto.
  - apply ints_rep. unfold entry_env in EN. apply bind_Some_length in EN as [_ ->].
    intros [x0 v0] Hin. apply in_combine_r in Hin. apply in_map_iff in Hin as (z & <- & _). exists z. reflexivity.
Qed.

Theorem hsteps_safe base p c tr c' :
  lin_check_prog p = true ->
  cfg_wt p (hc_env c) (hc_stmt c) -> HInv base (hc_env c) (hc_heap c) ->
  hsteps p c tr c' ->
  pre_trace (hc_heap c) (roots (hc_env c)) tr /\
  hc_heap c' = fst (grun tr (hc_heap c, roots (hc_env c))) /\
  Permutation (snd (grun tr (hc_heap c, roots (hc_env c)))) (roots (hc_env c')) /\
  HInv base (hc_env c') (hc_heap c') /\ cfg_wt p (hc_env c') (hc_stmt c').
Proof.
  intros LP W HI H. induction H as [c|c tr c1 ops he' s' pr H IH HS].
  - cbn. split; [exact I|]. split; [reflexivity|]. split; [reflexivity|]. auto.
  - destruct (IH W HI) as (P1 & E1 & R1 & I1 & W1).
    destruct (hstep_safe base p _ _ _ _ _ _ _ W1 I1 HS) as (P2 & R2 & I2).
    cbn [hc_env hc_heap hc_stmt].
    set (sr := grun tr (hc_heap c, roots (hc_env c))) in *.
    assert (Esr : sr = (fst sr, snd sr)) by (destruct sr; reflexivity).
    destruct (grun_perm ops (hc_heap c1) _ _ R1) as [F G]. rewrite E1 in F, G.
    split; [|split; [|split; [|split]]].
    + apply pre_trace_app. split; [exact P1|]. fold sr. rewrite <- E1.
      eapply pre_trace_perm; [symmetry; exact R1|exact P2].
    + rewrite grun_app. fold sr. rewrite Esr, F, <- E1. apply hrun_grun.
    + rewrite grun_app. fold sr. rewrite Esr. etransitivity; [exact G|]. rewrite <- E1. exact R2.
    + exact I2.
    + eapply hstep_wt; eauto.
Qed.

(* the main theorem: programs *)
Theorem program_heap_safe base p args tr c :
  lin_check_prog p = true -> entry_ext p = true -> (0 < base)%Z ->
  hreach base p args tr c ->
  pre_trace (init base) [] tr /\
  hc_heap c = fst (grun tr (init base, [])) /\
  Permutation (snd (grun tr (init base, []))) (roots (hc_env c)) /\
  (exists hl fl cl, InvA base (hc_heap c) (roots (hc_env c)) hl fl cl) /\
  (exists lk, KI lk (hc_heap c) (roots (hc_env c)) /\ env_rep lk (hc_heap c) (hc_env c)) /\
  cfg_wt p (hc_env c) (hc_stmt c).
Proof.
  intros LP EE Hb (d & ds & e & PD & EN & HS).
  pose proof (hinit_wt base p d ds e args LP EE PD EN) as W0.
  pose proof (hinit_inv base d e args Hb EN) as I0.
  destruct (hsteps_safe base p _ _ _ LP W0 I0 HS) as (P & E & R & (lk & IA & K & ER) & W).
  unfold hinit in P, E, R; cbn [hc_env hc_heap] in P, E, R. rewrite attach_nil_roots in P, E, R.
  repeat split; eauto.
Qed.
