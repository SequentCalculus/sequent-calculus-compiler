(* C15, program level, fragment without type parameters / type arguments: the checker (as it is
   since fix d524b1f, Check.check = check_gen true) accepts every program that satisfies the
   declarative rules. *)
From Coq Require Import List ZArith String Bool Permutation Lia.
From SCC Require Import Base.Sexp Lang.SynUtil Lang.FunSyn Model.Check Sem.FunTyping
  Proof.FunInd Proof.FunEq Proof.CheckAnn Proof.TypingReject Proof.CheckBuild Proof.StringFacts Proof.CheckMono
  Proof.CheckMonoSound Proof.CheckMonoProg Proof.CheckMonoComplete Proof.CheckDecls.
Import ListNotations.
Open Scope list_scope.

Lemma notin_aget_none : forall {V} (m : amap V) k, ~ In k (map fst m) -> aget m k = None.
Proof.
  induction m as [|[k' v] r IH]; intros k H; simpl; [reflexivity|].
  destruct (String.eqb k' k) eqn:E.
  - apply String.eqb_eq in E. subst. exfalso. apply H. left. reflexivity.
  - apply IH. intro; apply H; right; assumption.
Qed.
Lemma notin_ahas_false : forall {V} (m : amap V) k, ~ In k (map fst m) -> ahas m k = false.
Proof. intros. unfold ahas. rewrite notin_aget_none by assumption. reflexivity. Qed.

Lemma build_ctors_ok : forall cs st,
  NoDup (map fst (st_ctor_templates st) ++ map fctname cs) -> exists st', build_ctors cs st = COk st'.
Proof.
  induction cs as [|c r IH]; intros st Hn; simpl; [eauto|].
  rewrite notin_ahas_false.
  - apply IH. simpl. rewrite ainsert_fresh.
    + rewrite map_app. simpl. rewrite <- app_assoc. exact Hn.
    + apply notin_aget_none. intro Hin. apply NoDup_remove_2 in Hn. apply Hn. apply in_or_app. left. assumption.
  - intro Hin. apply NoDup_remove_2 in Hn. apply Hn. apply in_or_app. left. assumption.
Qed.
Lemma build_dtors_ok : forall cs st,
  NoDup (map fst (st_dtor_templates st) ++ map fdtname cs) -> exists st', build_dtors cs st = COk st'.
Proof.
  induction cs as [|c r IH]; intros st Hn; simpl; [eauto|].
  rewrite notin_ahas_false.
  - apply IH. simpl. rewrite ainsert_fresh.
    + rewrite map_app. simpl. rewrite <- app_assoc. exact Hn.
    + apply notin_aget_none. intro Hin. apply NoDup_remove_2 in Hn. apply Hn. apply in_or_app. left. assumption.
  - intro Hin. apply NoDup_remove_2 in Hn. apply Hn. apply in_or_app. left. assumption.
Qed.

Lemma NoDup_app_mid : forall {X} (a b c : list X), NoDup (a ++ b ++ c) -> NoDup (a ++ b).
Proof. intros X a b c H. rewrite app_assoc in H. eapply NoDup_app_l. eassumption. Qed.
Lemma NoDup_head_notin : forall {X} (a : list X) x c, NoDup (a ++ x :: c) -> ~ In x a.
Proof. intros X a x c H Hin. apply NoDup_remove_2 in H. apply H. apply in_or_app. auto. Qed.

Lemma build_decls_ok : forall ds pre st,
  built pre st ->
  NoDup (map td_name (tdecls (pre ++ ds))) -> NoDup (xtor_names FData (tdecls (pre ++ ds))) ->
  NoDup (xtor_names FCodata (tdecls (pre ++ ds))) -> NoDup (map fdname (fdefs (pre ++ ds))) ->
  exists st', build_decls ds st = COk st'.
Proof.
  induction ds as [|d r IH]; intros pre st B N1 N2 N3 N4; simpl; [eauto|].
  assert (Hd : exists st1, build_decl d st = COk st1).
  { rewrite tdecls_app, fdefs_app in *.
    destruct d as [d|d|d]; simpl in *.
    - rewrite notin_ahas_false.
      + apply build_ctors_ok. simpl. rewrite (b_ct _ _ B), keys_ct.
        unfold xtor_names in N2. rewrite flat_map_app in N2. simpl in N2. rewrite map_map in N2. simpl in N2.
        apply NoDup_app_mid in N2. exact N2.
      + rewrite (b_tt _ _ B), keys_tt. rewrite map_app in N1. simpl in N1. eapply NoDup_head_notin. exact N1.
    - rewrite notin_ahas_false.
      + apply build_dtors_ok. simpl. rewrite (b_dt _ _ B), keys_dt.
        unfold xtor_names in N3. rewrite flat_map_app in N3. simpl in N3. rewrite map_map in N3. simpl in N3.
        apply NoDup_app_mid in N3. exact N3.
      + rewrite (b_tt _ _ B), keys_tt. rewrite map_app in N1. simpl in N1. eapply NoDup_head_notin. exact N1.
    - rewrite notin_ahas_false; [eauto|].
      rewrite (b_df _ _ B), keys_df. rewrite map_app in N4. simpl in N4. eapply NoDup_head_notin. exact N4. }
  destruct Hd as [st1 Hd]. rewrite Hd. simpl.
  apply (IH (pre ++ [d]) st1); [eapply build_decl_spec; eassumption| | | |];
    rewrite <- app_assoc; simpl; assumption.
Qed.

Lemma check_type_params_go_ok_conv : forall all l,
  (forall k pol ps xs, In (k, (pol, ps, xs)) l -> nodup ps = true /\ forallb (fun p => negb (ahas all p)) ps = true) ->
  check_type_params_go all l = COk tt.
Proof.
  induction l as [|[k [[pol ps] xs]] r IH]; intros H; simpl; [reflexivity|].
  destruct (H k pol ps xs (or_introl eq_refl)) as [Hn Hf].
  rewrite (nodup_names_no_dups _ Hn). simpl.
  assert (He : existsb (fun p => ahas all p) ps = false).
  { destruct (existsb (fun p => ahas all p) ps) eqn:E; [|reflexivity].
    apply existsb_exists in E. destruct E as [p [Hp Ha]]. rewrite forallb_forall in Hf. specialize (Hf p Hp).
    rewrite Ha in Hf. discriminate. }
  rewrite He. apply IH. intros. eapply H. right. eassumption.
Qed.

Lemma build_symbol_table_ok : forall p,
  names_ok (tdecls (fpdecls p)) (fdefs (fpdecls p)) = true ->
  (forall td, In td (tdecls (fpdecls p)) ->
     nodup (td_params td) = true /\ forallb (fun q => negb (is_some (find_type (tdecls (fpdecls p)) q))) (td_params td) = true) ->
  exists st, build_symbol_table p = COk st.
Proof.
  intros p Hn Hps. unfold names_ok in Hn.
  apply andb_true_iff in Hn. destruct Hn as [Hn N4]. apply andb_true_iff in Hn. destruct Hn as [Hn N3].
  apply andb_true_iff in Hn. destruct Hn as [N1 N2].
  destruct (build_decls_ok (fpdecls p) [] st_empty built_empty) as [st Hb]; simpl; auto using nodup_NoDup.
  unfold build_symbol_table. rewrite Hb. simpl.
  pose proof (build_decls_spec _ [] _ _ built_empty Hb) as B. simpl in B.
  rewrite check_type_params_go_ok_conv; [simpl; eauto|].
  intros k pol ps xs Hin. rewrite (b_tt _ _ B), tt_list in Hin.
  apply in_map_iff in Hin. destruct Hin as [td [Heq Htd]]. unfold tt_val in Heq. inversion Heq; subst.
  destruct (Hps td Htd) as [H1 H2]. split; [assumption|].
  apply forallb_forall. intros q Hq. rewrite forallb_forall in H2. specialize (H2 q Hq).
  unfold ahas. rewrite (b_tt _ _ B), aget_tt. destruct (find_type (tdecls (fpdecls p)) q); simpl in *; assumption.
Qed.


Lemma wf_tty_nil : forall ts t, wf_tty ts [] t = wf_ty ts t.
Proof.
  intros ts. fix IH 1. intros [|n args]; simpl; [reflexivity|].
  destruct (find_type ts n); [|reflexivity]. f_equal.
  induction args as [|a r IHr]; simpl; [reflexivity|]. rewrite IH, IHr. reflexivity.
Qed.

Lemma wf_world_of_prog : forall p, mono_world (tdecls (fpdecls p)) (fdefs (fpdecls p)) -> has_type_b p = true ->
  wf_world (tdecls (fpdecls p)) (fdefs (fpdecls p)).
Proof.
  intros p W H. unfold has_type_b in H. apply andb_true_iff in H. destruct H as [H Hd].
  apply andb_true_iff in H. destruct H as [_ Hdecl]. unfold decls_ok in Hdecl. rewrite forallb_forall in Hdecl, Hd.
  constructor.
  - intros td s Hin Hs. specialize (Hdecl td Hin). unfold tdecl_ok in Hdecl.
    apply andb_true_iff in Hdecl. destruct Hdecl as [_ Hx]. rewrite forallb_forall in Hx. specialize (Hx s Hs).
    unfold xsig_ok in Hx. rewrite (W_params _ _ W td Hin) in Hx. apply andb_true_iff in Hx. destruct Hx as [Ha Hr].
    split.
    + unfold ctx_wf. rewrite forallb_forall in Ha. apply forallb_forall. intros b Hb. rewrite <- wf_tty_nil. auto.
    + intros r Er. rewrite Er in Hr. rewrite wf_tty_nil in Hr. exact Hr.
  - intros d Hin. specialize (Hd d Hin). unfold def_ok in Hd.
    apply andb_true_iff in Hd. destruct Hd as [Hd _]. apply andb_true_iff in Hd. destruct Hd as [Hd Hr].
    apply andb_true_iff in Hd. destruct Hd as [_ Hc]. split; assumption.
Qed.

Lemma nodup_ctx_no_dups_go : forall c seen, nodup (map fbvar c) = true -> (forall x, In x (map fbvar c) -> ~ In x seen) ->
  ctx_no_dups_go seen c = COk tt.
Proof.
  induction c as [|b r IH]; intros seen Hn Hs; simpl; [reflexivity|].
  simpl in Hn. apply andb_true_iff in Hn. destruct Hn as [Hm Hn].
  destruct (mem_name (fbvar b) seen) eqn:E.
  - exfalso. apply (Hs (fbvar b) (or_introl eq_refl)). apply mem_In. exact E.
  - apply IH; [assumption|]. intros y Hy [<-|Hin].
    + assert (mem (fbvar b) (map fbvar r) = true) by (apply mem_In; assumption). rewrite H in Hm. discriminate.
    + eapply Hs; [right; eassumption|assumption].
Qed.

Section DefsC.
  Variable ts : list tdecl.
  Variable fs : list fdef.
  Hypothesis W : mono_world ts fs.
  Hypothesis WF : wf_world ts fs.

  Lemma ctx_check_ok : forall c st, mono_ctx c = true -> ctx_wf ts c = true -> tables ts fs st -> minv st ->
    exists st', ctx_check c st = COk st' /\ minv st' /\ same_templates st st'.
  Proof.
    induction c as [|b r IH]; intros st Hm Hw Tb I; simpl in *.
    - exists st. auto using same_templates_refl.
    - apply andb_true_iff in Hm. destruct Hm as [Hb Hr]. apply andb_true_iff in Hw. destruct Hw as [Hwb Hwr].
      destruct (ty_check_mono_ok ts fs (W_ret _ _ W) _ st Hb Tb I Hwb) as [st1 [H1 [I1 [S1 _]]]]. rewrite H1. simpl.
      destruct (IH st1 Hr Hwr (tables_same _ _ _ _ Tb S1) I1) as [st2 [H2 [I2 S2]]].
      exists st2. splits; frame.
  Qed.

  Lemma main_ret_check_mono_ok : forall d st, main_ret_ok d = true -> tables ts fs st -> minv st ->
    exists st', main_ret_check d st = COk st' /\ minv st' /\ same_templates st st'.
  Proof.
    intros d st Hm Tb I. unfold main_ret_check. unfold main_ret_ok in Hm.
    destruct (String.eqb (fdname d) "main").
    - apply fty_eqb_eq in Hm. rewrite Hm.
      destruct (check_equality_mono_ok ts fs (W_ret _ _ W) FI64 st eq_refl Tb I eq_refl) as [st' [H [I' [S _]]]]. eauto.
    - exists st. auto using same_templates_refl.
  Qed.

  Lemma def_check_ran : forall eager d st, def_ok ts fs d = true ->
    mono_ctx (fdctx d) = true -> mono_ty (fdret d) = true -> mono_term (fdbody d) = true ->
    tables ts fs st -> minv st ->
    (exists d' st', def_check_gen eager d st = COk (d', st') /\ minv st' /\ same_templates st st')
    \/ (eager = false /\ def_check_gen eager d st = CErr EUndefined).
  Proof.
    intros eager d st Hok Hmc Hmr Hmb Tb I. unfold def_ok in Hok.
    apply andb_true_iff in Hok. destruct Hok as [Hok Hk]. apply andb_true_iff in Hok. destruct Hok as [Hok Hwr].
    apply andb_true_iff in Hok. destruct Hok as [Hnd Hwc]. apply andb_true_iff in Hnd. destruct Hnd as [Hmain Hnd].
    unfold def_check_gen. unfold ctx_no_dups. rewrite nodup_ctx_no_dups_go; [|assumption|intros ? ? []]. simpl.
    destruct (ctx_check_ok _ st Hmc Hwc Tb I) as [st1 [H1 [I1 S1]]]. rewrite H1. simpl.
    destruct (ty_check_mono_ok ts fs (W_ret _ _ W) _ st1 Hmr (tables_same _ _ _ _ Tb S1) I1 Hwr) as [st2a [H2 [I2a [S2a _]]]].
    rewrite H2. simpl. assert (S02a : same_templates st st2a) by frame.
    destruct (main_ret_check_mono_ok d st2a Hmain (tables_same _ _ _ _ Tb S02a) I2a) as [st2 [H2m [I2 S2]]].
    rewrite H2m. simpl. assert (S02 : same_templates st st2) by frame.
    destruct (check_term_ran ts fs W WF eager (fdbody d) st2 (fdctx d) (fdret d) Hmb Hmc Hmr (tables_same _ _ _ _ Tb S02) I2 Hwc Hwr Hk)
      as [[[b' st3] [H3 [I3 [S3 G3]]]]|[Ee Hu]].
    - simpl in I3, S3. rewrite H3. simpl. left. eexists _, st3. splits; frame.
    - rewrite Hu. right. split; [exact Ee|reflexivity].
  Qed.

  Lemma check_defs_ran : forall eager ds st,
    (forall d, In d ds -> def_ok ts fs d = true /\ mono_ctx (fdctx d) = true /\ mono_ty (fdret d) = true /\ mono_term (fdbody d) = true) ->
    tables ts fs st -> minv st ->
    (exists ds' st', check_defs_gen eager ds st = COk (ds', st') /\ minv st')
    \/ (eager = false /\ check_defs_gen eager ds st = CErr EUndefined).
  Proof.
    intros eager. induction ds as [|d r IH]; intros st H Tb I; simpl.
    - left. exists [], st. auto.
    - destruct (H d (or_introl eq_refl)) as [Hok [Hc [Hr Hb]]].
      destruct (def_check_ran eager d st Hok Hc Hr Hb Tb I) as [[d' [st1 [H1 [I1 S1]]]]|[Ee Hu]];
        [|rewrite Hu; right; split; [exact Ee|reflexivity]].
      rewrite H1. simpl.
      destruct (IH st1 (fun d0 Hd0 => H d0 (or_intror Hd0)) (tables_same _ _ _ _ Tb S1) I1) as [[r' [st2 [H2 I2]]]|[Ee Hu]];
        [|rewrite Hu; right; split; [exact Ee|reflexivity]].
      rewrite H2. simpl. left. eauto.
  Qed.
End DefsC.

Lemma collect_ctors_ok : forall st xs, (forall x, In x xs -> exists sg, aget (st_ctors st) x = Some sg) ->
  exists r, collect_ctors st "" xs = COk r.
Proof.
  induction xs as [|x r IH]; intros H; simpl; [eauto|]. rewrite sapp_nil_r.
  destruct (H x (or_introl eq_refl)) as [sg ->]. destruct (IH (fun y Hy => H y (or_intror Hy))) as [r' ->]. simpl. eauto.
Qed.
Lemma collect_dtors_ok : forall st xs, (forall x, In x xs -> exists sg, aget (st_dtors st) x = Some sg) ->
  exists r, collect_dtors st "" xs = COk r.
Proof.
  induction xs as [|x r IH]; intros H; simpl; [eauto|]. rewrite sapp_nil_r.
  destruct (H x (or_introl eq_refl)) as [[sg rt] ->]. destruct (IH (fun y Hy => H y (or_intror Hy))) as [r' ->]. simpl. eauto.
Qed.
Lemma collect_types_ok : forall st, minv st -> forall l, (forall k v, In (k, v) l -> aget (st_types st) k = Some v) ->
  exists r, collect_types st l = COk r.
Proof.
  intros st I l. induction l as [|[name [[pol targs] xs]] r IH]; intros H; simpl; [eauto|].
  pose proof (H name _ (or_introl eq_refl)) as Hg. destruct (mi_types _ I _ _ _ _ Hg) as [-> _].
  destruct (IH (fun k v Hin => H k v (or_intror Hin))) as [[das cos] Hr].
  destruct pol.
  - destruct (collect_ctors_ok st xs) as [cs Hc].
    { intros x Hx. destruct (mi_ctors_of _ I _ _ x Hg Hx) as [sg [Hs _]]. eauto. }
    rewrite print_targs_nil, Hc. simpl. rewrite Hr. simpl. eauto.
  - destruct (collect_dtors_ok st xs) as [cs Hc].
    { intros x Hx. destruct (mi_dtors_of _ I _ _ x Hg Hx) as [sg [Hs _]]. eauto. }
    rewrite print_targs_nil, Hc. simpl. rewrite Hr. simpl. eauto.
Qed.

(* a well-typed program of the fragment is accepted; before fix d524b1f it was accepted or rejected with Undefined *)
Theorem check_gen_mono_ran : forall eager p, mono_prog p = true -> has_type_b p = true ->
  (exists q, check_gen eager p = COk q) \/ (eager = false /\ check_gen eager p = CErr EUndefined).
Proof.
  intros eager p Hm Ht. pose proof Ht as Ht0. unfold has_type_b in Ht.
  apply andb_true_iff in Ht. destruct Ht as [Ht Hdefs]. apply andb_true_iff in Ht. destruct Ht as [Hn Hdecls].
  assert (Hps : forall td, In td (tdecls (fpdecls p)) ->
            nodup (td_params td) = true /\ forallb (fun q => negb (is_some (find_type (tdecls (fpdecls p)) q))) (td_params td) = true
            /\ forallb (xsig_ok (tdecls (fpdecls p)) (td_params td)) (td_xtors td) = true).
  { intros td Hin. unfold decls_ok in Hdecls. rewrite forallb_forall in Hdecls. specialize (Hdecls td Hin).
    unfold tdecl_ok in Hdecls. apply andb_true_iff in Hdecls. destruct Hdecls as [Hd H3].
    apply andb_true_iff in Hd. destruct Hd as [H1 H2]. auto. }
  destruct (build_symbol_table_ok p Hn) as [st Hb]; [intros td Hin; destruct (Hps td Hin) as [? [? ?]]; auto|].
  destruct (build_symbol_table_spec p st Hb) as [Tb [_ [Hty [Hc [Hd _]]]]].
  pose proof (mono_world_of_prog p Hm Hn) as W. pose proof (wf_world_of_prog p W Ht0) as WF.
  unfold check_gen. rewrite Hb. simpl. unfold check_with_table_gen.
  rewrite (check_type_decls_ok_conv _ _ st (fpdecls p) Tb); [|intros td Hin; destruct (Hps td Hin) as [? [? ?]]; auto|intros td Hin; destruct (Hps td Hin) as [? [? ?]]; auto]. simpl.
  rewrite defs_of_fdefs.
  destruct (check_defs_ran _ _ W WF eager (fdefs (fpdecls p)) st) as [[ds' [st1 [H1 I1]]]|[Ee Hu]]; [|exact Tb|apply minv_start; assumption| |].
  { intros d Hin. rewrite forallb_forall in Hdefs. destruct (W_defs _ _ W d Hin). splits; auto.
    eapply mono_def_body; eassumption. }
  - rewrite H1. simpl.
    destruct (collect_types_ok st1 I1 (st_types st1)) as [[das cos] Hcol].
    { intros k v Hin. apply In_aget; [apply (mi_nodup _ I1)|assumption]. }
    rewrite Hcol. simpl. left. eauto.
  - rewrite Hu. right. split; [exact Ee|reflexivity].
Qed.
Theorem check_complete_mono : forall p,
  mono_prog p = true -> has_type_b p = true -> exists q, check p = COk q.
Proof. intros p Hm Ht. destruct (check_gen_mono_ran true p Hm Ht) as [H|[E _]]; [exact H|discriminate]. Qed.
