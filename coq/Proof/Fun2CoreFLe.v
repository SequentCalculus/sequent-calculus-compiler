(* Proof/Fun2CoreFLe  -  the fundamental lemma, case by case: variables, literals, operators, exit,
   parentheses. *)
From Coq Require Import List ZArith NArith String Bool Lia.
From SCC Require Import Base.Sexp Lang.SynUtil Lang.FunSyn Lang.FunTy Lang.CoreSyn.
From SCC Require Import Sem.AxSem Sem.CoreSem Sem.FunSem Model.Fun2Core.
From SCC Require Import Proof.Fun2CoreProof Proof.Fun2CoreSim Proof.Fun2CoreTfv Proof.Fun2CoreInv Proof.Fun2CoreUB
     Proof.Fun2CoreRel Proof.Fun2CoreFLa Proof.Fun2CoreFLb Proof.Fun2CoreFLc Proof.Fun2CoreFLd.
Import ListNotations.
Open Scope string_scope.
Open Scope list_scope.


Lemma Sof_incl : forall A B : bset, (forall bb, In bb A -> In bb B) -> forall x, Sof A x -> Sof B x.
Proof.
  intros A B H x Hx. unfold Sof in *. apply in_cnames_inv in Hx. destruct Hx as [bb [Hb E]]. subst x.
  apply in_cnames. apply H. exact Hb.
Qed.

Section FLe.
  Variable p : fcprog.
  Variable cp : cprog.
  Hypothesis Hcod : cpcodata cp = codata_of p.

  (* a related continuation applied to an integer / any data value through a machine continuation *)
  Lemma Kb_ret : forall n k m j v pv, Kb p cp n k (KRet m) -> (j < n)%nat -> dval v -> vrel p cp j v pv ->
    sim p cp j (FRet k v) (SNext (App m (BP pv))).
  Proof.
    intros n k m j v pv Hk Hj Hd Hv. rewrite <- (dval_interact_ret p cp j v pv m Hd Hv). eapply Kb_use; eauto.
  Qed.
  (* a machine continuation that expects an integer, for a source continuation that is stuck on anything else *)
  Lemma Kb_int : forall n k m,
    (forall tag args, exists w, fstep p (FRet k (FvCtor tag args)) = FHalt (OStuck w)) ->
    (forall j z, (S j < n)%nat -> sim p cp (S j) (FRet k (FvInt z)) (SNext (App m (BP (PInt z))))) ->
    Kb p cp n k (KRet m).
  Proof.
    intros n k m Hstuck H. apply Kb_intro. intros j Hj v pv Hd Hv. rewrite (dval_interact_ret p cp j v pv _ Hd Hv).
    destruct j as [|j1]; [apply sim_zero|].
    destruct v as [x|tag args|cls0 e0|t0 e0]; try contradiction.
    - apply vrel_int in Hv. subst pv. apply H. exact Hj.
    - destruct (Hstuck tag args) as [w Hw]. eapply sim_stuck. exact Hw.
  Qed.
  Lemma CK_KS : forall n c k cont ce (S : cident -> Prop), CK p cp n c k cont ce S ->
    (forall bb, In bb (fvt cont) -> S (cbvar bb)) -> KS p cp n c k cont ce.
  Proof.
    intros n c k cont ce S [_ HK] Hall. apply HK.
    intros x Hx. apply in_cnames_inv in Hx. destruct Hx as [bb [Hb E]]. subst x. apply Hall. exact Hb.
  Qed.
  (* the continuation k of CK (data kind), as a consumer value, once all its names are in S *)
  Lemma CK_head : forall n k cont ce (S : cident -> Prop), cont_shape cp false cont -> CK p cp n false k cont ce S ->
    (forall bb, In bb (fvt cont) -> S (cbvar bb)) ->
    exists kv, khead cont ce = inl kv /\ Kb p cp n k kv.
  Proof. intros n k cont ce S Hsh HCK Hall. apply (KS_head p cp); [exact Hsh|]. eapply CK_KS; eauto. Qed.
  Lemma CK_mcutk : forall n k cont ce (S : cident -> Prop), cont_shape cp false cont -> CK p cp n false k cont ce S ->
    (forall bb, In bb (fvt cont) -> S (cbvar bb)) -> Kb p cp n k (KRet (MCutK cont ce)).
  Proof. intros n k cont ce S Hsh HCK Hall. apply (Kb_mcutk p cp); [exact Hsh|]. eapply CK_KS; eauto. Qed.
  Lemma Sof_in : forall bb bs, In bb bs -> Sof bs (cbvar bb).
  Proof. intros bb bs H. unfold Sof. apply in_cnames. exact H. Qed.

  Lemma fl_var : forall N v ty chi,
    flw p cp N (FVar v ty chi) /\ flc p cp N (FVar v ty chi) /\ flt p cp N (FVar v ty chi).
  Proof.
    intros N v ty chi. split; [|split].
    - intros n Hn G cur cont st s st' e ce k Hwc Hf Hkd Hws Hl HG Hb Hni Hsh He HCK.
      rewrite wc_unfold in Hwc. apply wc_var_inv in Hwc. destruct Hwc as [ty0 [Ety [Es Est]]]. subst.
      simpl in Hws. apply var_ok_inv in Hws. destruct Hws as [ty1 [E1 Hg]]. injection E1 as E1. subst ty1.
      destruct (erel_var p cp n G _ e ce v _ He Hg) as [val [pv [El [Ec [Hv Hd]]]]].
      { apply (Sof_in (mkcb (new_id v) CPrd (compile_ty ty0))). apply fvs_cut. left. apply fvt_var. reflexivity. }
      assert (HKS : KS p cp n (tkind p (FVar v (Some ty0) chi)) k cont ce).
      { eapply CK_KS; [exact HCK|]. intros bb Hbb. apply Sof_in. apply fvs_cut. right. exact Hbb. }
      destruct (KS_cut p cp n _ k cont ce (CXVar CPrd (new_id v) (compile_ty ty0)) (compile_ty ty0) Hsh HKS I) as [kv [Hr Hk]].
      destruct n as [|n1]; [apply sim_zero|].
      eapply sim_fstep; [simpl; rewrite El; reflexivity|].
      apply sim_cstep. eapply sim_rreach; [|exact Hr]. simpl. rewrite Ec.
      eapply Kk_use; [exact Hk | lia | | eapply vrel_mono; [exact Hv | lia]].
      unfold tkind. simpl. rewrite <- (is_codata_compile p cp Hcod). exact Hd.
    - intros n Hn G cur ty' st c st' e ce k m Hc Hf Hkd Hk0 Hws Hl HG Hb Hty He HK.
      rewrite cmp_unfold in Hc. apply cmp_var_inv in Hc. destruct Hc as [ty0 [Ety [Es Est]]]. subst.
      simpl in Hws. apply var_ok_inv in Hws. destruct Hws as [ty1 [E1 Hg]]. injection E1 as E1. subst ty1.
      destruct (erel_var p cp n G _ e ce v _ He Hg) as [val [pv [El [Ec [Hv Hd]]]]].
      { apply (Sof_in (mkcb (new_id v) CPrd (compile_ty ty0))). apply fvt_var. reflexivity. }
      unfold tkind in Hk0. simpl in Hk0. rewrite (is_codata_compile p cp Hcod), Hk0 in Hd.
      destruct n as [|n1]; [apply sim_zero|].
      eapply sim_fstep; [simpl; rewrite El; reflexivity|].
      apply sim_cstep. simpl. rewrite Ec.
      eapply Kb_ret; [exact HK | lia | exact Hd | eapply vrel_mono; [exact Hv | lia]].
    - intros n Hn G cur ty' st c st' e ce Hc Hf Hkd Hk1 Hws Hl HG Hb Hty He.
      rewrite cmp_unfold in Hc. apply cmp_var_inv in Hc. destruct Hc as [ty0 [Ety [Es Est]]]. subst.
      simpl in Hws. apply var_ok_inv in Hws. destruct Hws as [ty1 [E1 Hg]]. injection E1 as E1. subst ty1.
      destruct (erel_var p cp n G _ e ce v _ He Hg) as [val [pv [El [Ec [Hv Hd]]]]].
      { apply (Sof_in (mkcb (new_id v) CPrd (compile_ty ty0))). apply fvt_var. reflexivity. }
      unfold tkind in Hk1. simpl in Hk1. rewrite (is_codata_compile p cp Hcod), Hk1 in Hd. simpl in Hd.
      exists pv. split; [|split; [|split; [|split]]].
      + intros m. simpl. rewrite Ec. reflexivity.
      + intros v0 s0 ty1. simpl. rewrite Ec. reflexivity.
      + intros cd tag vals. simpl. rewrite Ec. reflexivity.
      + (* the thunk of a variable behaves like the variable's value *)
        apply Co_intro. intros j Hj x args args' k kv Hargs Hdf Hk.
        eapply sim_fstep; [reflexivity|].
        destruct j as [|j1]; [apply sim_zero|].
        eapply sim_fstep; [simpl; rewrite El; reflexivity|].
        destruct j1 as [|j2]; [apply sim_zero|].
        apply (vrel_co p cp (S n) val pv Hd) in Hv || apply (vrel_co p cp n val pv Hd) in Hv.
        apply (Co_use p cp n val pv Hv j2 ltac:(lia)).
        * eapply brels_mono; [exact Hargs | lia].
        * exact Hdf.
        * eapply Kk_mono; [exact Hk | lia].
      + intros y ty1 chi0 E. injection E as E1 E2 E3. subst. exists val. auto.
  Qed.

  Lemma fl_lit : forall N z, flw p cp N (FLit z) /\ flc p cp N (FLit z).
  Proof.
    intros N z. split.
    - intros n Hn G cur cont st s st' e ce k Hwc Hf Hkd Hws Hl HG Hb Hni Hsh He HCK.
      rewrite wc_unfold in Hwc. unfold wc_lit in Hwc. apply mret_inv in Hwc. destruct Hwc; subst.
      change (tkind p (FLit z)) with false in *.
      destruct (CK_head n k cont ce _ Hsh HCK) as [kv [Hh Hk]].
      { intros bb Hbb. apply Sof_in. apply fvs_cut. right. exact Hbb. }
      destruct n as [|n1]; [apply sim_zero|].
      eapply sim_fstep; [reflexivity|].
      apply sim_cstep. rewrite (cstep_cut_lit cp); [|exact Hsh]. rewrite Hh.
      eapply Kb_use; [exact Hk | lia | exact I | reflexivity].
    - intros n Hn G cur ty' st c st' e ce k m Hc Hf Hkd Hk0 Hws Hl HG Hb Hty He HK.
      rewrite cmp_unfold in Hc. unfold cmp_lit in Hc. apply mret_inv in Hc. destruct Hc; subst.
      destruct n as [|n1]; [apply sim_zero|].
      eapply sim_fstep; [reflexivity|]. apply sim_cstep. simpl.
      eapply Kb_ret; [exact HK | lia | exact I | reflexivity].
  Qed.

  Lemma op_core : forall N a o b, flc p cp N a -> flc p cp N b ->
    forall n, (n <= N)%nat -> forall G cur st a' st1 b' st2 e ce k m,
    cmp (codata_of p) cur false a CI64 st = Ok (a', st1) ->
    cmp (codata_of p) cur false b CI64 st1 = Ok (b', st2) ->
    frag p a = true -> frag p b = true -> kd p a = true -> kd p b = true -> tkind p a = false -> tkind p b = false ->
    ws G a = true -> ws G b = true ->
    lifted_ok cp st2 -> Gused G st -> incl (bnd a) (st_used_vars st) -> incl (bnd b) (st_used_vars st) ->
    erel p cp n G (Sof (fvt (COp a' (op_of o) b'))) e ce ->
    Kb p cp n k (KRet m) ->
    sim p cp n (FEval a e (FkOpL o b e k)) (SNext (Arg (CProducer a') ce (MOpL (op_of o) b' ce m))).
  Proof.
    intros N a o b Ha Hb n Hn G cur st a' st1 b' st2 e ce k m Hca Hcb Hfa Hfb Hka Hkb Hta Htb Hwa Hwb Hl HG Hba Hbb He HK.
    assert (Hg1 : grows st st1) by (eapply cmp_grows; exact Hca).
    assert (Hg2 : grows st1 st2) by (eapply cmp_grows; exact Hcb).
    apply (Ha n Hn G cur CI64 st a' st1 e ce _ _ Hca Hfa Hka Hta Hwa).
    - eapply lifted_ok_grows; eauto.
    - exact HG.
    - exact Hba.
    - reflexivity.
    - eapply erel_weaken; [exact He | | apply Nat.le_refl]. apply Sof_incl. intros bb Hx. apply fvt_op. left. exact Hx.
    - apply Kb_int; [intros; eexists; reflexivity|]. intros j1 x Hj.
      eapply sim_fstep; [reflexivity|]. apply sim_cstep. simpl.
      apply (Hb j1 ltac:(lia) G cur CI64 st1 b' st2 e ce _ _ Hcb Hfb Hkb Htb Hwb Hl).
      + eapply Gused_grows; eauto.
      + eapply incl_grows; eauto.
      + reflexivity.
      + eapply erel_weaken; [exact He | | lia]. apply Sof_incl. intros bb Hx. apply fvt_op. right. exact Hx.
      + apply Kb_int; [intros; eexists; reflexivity|]. intros i1 y Hi.
        apply sim_cstep. simpl. rewrite ax_binop_op_of.
        destruct (eval_op (ax_fbinop o) x y) as [z|w] eqn:Eo.
        * eapply sim_fstep; [simpl; rewrite Eo; reflexivity|].
          eapply Kb_ret; [exact HK | lia | exact I | reflexivity].
        * assert (Hs : fstep p (FRet (FkOpR o x k) (FvInt y)) = FHalt (OUndef w)) by (simpl; rewrite Eo; reflexivity).
          exact (sim_halt p cp i1 _ _ Hs).
  Qed.

  Lemma fl_op : forall N a o b, flc p cp N a -> flc p cp N b ->
    flw p cp N (FOp a o b) /\ flc p cp N (FOp a o b).
  Proof.
    intros N a o b Ha Hb. split.
    - intros n Hn G cur cont st s st' e ce k Hwc Hf Hkd Hws Hl HG Hbn Hni Hsh He HCK.
      rewrite wc_unfold in Hwc. apply wc_op_inv in Hwc. destruct Hwc as [a' [st1 [b' [Hca [Hcb Es]]]]]. subst s.
      change (tkind p (FOp a o b)) with false in *.
      simpl in Hf, Hkd, Hws.
      apply andb_prop in Hf. destruct Hf as [Hf1 Hf2]. apply andb_prop in Hws. destruct Hws as [Hw1 Hw2].
      apply andb_prop in Hkd. destruct Hkd as [Hkd Htb]. apply andb_prop in Hkd. destruct Hkd as [Hkd Hta].
      apply andb_prop in Hkd. destruct Hkd as [Hka Hkb]. apply negb_true_iff in Hta. apply negb_true_iff in Htb.
      destruct n as [|n1]; [apply sim_zero|].
      eapply sim_fstep; [reflexivity|]. apply sim_cstep. rewrite cstep_cut_op.
      assert (Hstep : match cont with
                      | CXtor _ tag args _ => start_args cp args ce (FinXtorK tag (MCutP (is_codata cp CI64) (COp a' (op_of o) b') ce))
                      | _ => SNext (Arg (CProducer a') ce (MOpL (op_of o) b' ce (MCutK cont ce)))
                      end = SNext (Arg (CProducer a') ce (MOpL (op_of o) b' ce (MCutK cont ce)))).
      { destruct cont; simpl in Hsh; try contradiction; try discriminate Hsh; reflexivity. }
      rewrite Hstep.
      eapply (op_core N a o b Ha Hb n1 ltac:(lia) G cur st a' st1 b' st' e ce k); eauto.
      + intros z Hz. apply Hbn. simpl. apply in_or_app. left. exact Hz.
      + intros z Hz. apply Hbn. simpl. apply in_or_app. right. exact Hz.
      + eapply erel_weaken; [exact He | | lia]. apply Sof_incl. intros bb Hx. apply fvs_cut. left. exact Hx.
      + eapply Kb_mono; [eapply (CK_mcutk (S n1)); eauto | lia].
        intros bb Hbb. apply Sof_in. apply fvs_cut. right. exact Hbb.
    - intros n Hn G cur ty' st c st' e ce k m Hc Hf Hkd Hk0 Hws Hl HG Hbn Hty He HK.
      rewrite cmp_unfold in Hc. apply cmp_op_inv in Hc. destruct Hc as [a' [st1 [b' [Hca [Hcb Es]]]]]. subst c.
      simpl in Hf, Hkd, Hws.
      apply andb_prop in Hf. destruct Hf as [Hf1 Hf2]. apply andb_prop in Hws. destruct Hws as [Hw1 Hw2].
      apply andb_prop in Hkd. destruct Hkd as [Hkd Htb]. apply andb_prop in Hkd. destruct Hkd as [Hkd Hta].
      apply andb_prop in Hkd. destruct Hkd as [Hka Hkb]. apply negb_true_iff in Hta. apply negb_true_iff in Htb.
      destruct n as [|n1]; [apply sim_zero|].
      eapply sim_fstep; [reflexivity|]. apply sim_cstep. simpl.
      eapply (op_core N a o b Ha Hb n1 ltac:(lia) G cur st a' st1 b' st' e ce k); eauto.
      + intros z Hz. apply Hbn. simpl. apply in_or_app. left. exact Hz.
      + intros z Hz. apply Hbn. simpl. apply in_or_app. right. exact Hz.
      + eapply erel_mono; [exact He | lia].
      + eapply Kb_mono; [exact HK | lia].
  Qed.

  Lemma fl_exit : forall N a ty, flc p cp N a -> flw p cp N (FExit a ty).
  Proof.
    intros N a ty Ha.
    intros n Hn G cur cont st s st' e ce k Hwc Hf Hkd Hws Hl HG Hbn Hni Hsh He HCK.
    rewrite wc_unfold in Hwc. apply wc_exit_inv in Hwc. destruct Hwc as [a' [ty0 [Hca [Ety Es]]]]. subst s.
    simpl in Hf, Hkd, Hws. apply andb_prop in Hkd. destruct Hkd as [Hka Hta]. apply negb_true_iff in Hta.
    destruct n as [|n1]; [apply sim_zero|].
    eapply sim_fstep; [reflexivity|]. apply sim_cstep. simpl.
    apply (Ha n1 ltac:(lia) G cur CI64 st a' st' e ce _ _ Hca Hf Hka Hta Hws Hl HG Hbn eq_refl).
    - eapply erel_mono; [exact He | lia].
    - apply Kb_int; [intros; eexists; reflexivity|]. intros j1 x Hj. apply sim_cstep. simpl.
      assert (Hs : fstep p (FRet FkExit (FvInt x)) = FHalt (OExit x)) by reflexivity.
      exact (sim_halt p cp j1 _ _ Hs).
  Qed.

  Lemma fl_paren : forall N t, flw p cp N t -> flc p cp N t -> flt p cp N t ->
    flw p cp N (FParen t) /\ flc p cp N (FParen t) /\ flt p cp N (FParen t).
  Proof.
    intros N t Hw Hc Ht. split; [|split].
    - intros n Hn G cur cont st s st' e ce k Hwc Hf Hkd Hws Hl HG Hbn Hni Hsh He HCK.
      rewrite wc_unfold in Hwc. simpl in Hf, Hkd, Hws, Hbn.
      change (tkind p (FParen t)) with (tkind p t) in *.
      destruct n as [|n1]; [apply sim_zero|].
      eapply sim_fstep; [reflexivity|].
      apply (Hw n1 ltac:(lia) G cur cont st s st' e ce k Hwc Hf Hkd Hws Hl HG Hbn Hni Hsh).
      + eapply erel_mono; [exact He | lia].
      + eapply CK_transfer; [exact Hsh | exact HCK | | lia]. intros x _ Hx. split; [exact Hx | reflexivity].
    - intros n Hn G cur ty' st c st' e ce k m Hcc Hf Hkd Hk0 Hws Hl HG Hbn Hty He HK.
      rewrite cmp_unfold in Hcc. simpl in Hf, Hkd, Hws, Hbn.
      change (tkind p (FParen t)) with (tkind p t) in *.
      destruct n as [|n1]; [apply sim_zero|].
      eapply sim_fstep; [reflexivity|].
      apply (Hc n1 ltac:(lia) G cur ty' st c st' e ce k m Hcc Hf Hkd Hk0 Hws Hl HG Hbn Hty).
      + eapply erel_mono; [exact He | lia].
      + eapply Kb_mono; [exact HK | lia].
    - intros n Hn G cur ty' st c st' e ce Hcc Hf Hkd Hk1 Hws Hl HG Hbn Hty He.
      rewrite cmp_unfold in Hcc. simpl in Hf, Hkd, Hws, Hbn.
      change (tkind p (FParen t)) with (tkind p t) in *.
      destruct (Ht n Hn G cur ty' st c st' e ce Hcc Hf Hkd Hk1 Hws Hl HG Hbn Hty He) as [pv [H1 [H2 [H2' [H3 H4]]]]].
      exists pv. split; [exact H1|]. split; [exact H2|]. split; [exact H2'|]. split.
      + (* one more source step: the parenthesis *)
        apply Co_intro. intros j Hj x args args' k kv Hargs Hdf Hk.
        eapply sim_fstep; [reflexivity|].
        destruct j as [|j1]; [apply sim_zero|].
        eapply sim_fstep; [reflexivity|].
        assert (Hc1 : sim p cp (S j1) (FRet (FkDtor x args k) (FvThunk t e)) (interact_val pv (KDtor (new_id x) (args' ++ [BK kv])))).
        { apply (Co_use p cp n _ pv H3 j1 ltac:(lia)).
          - eapply brels_mono; [exact Hargs | lia].
          - exact Hdf.
          - eapply Kk_mono; [exact Hk | lia]. }
        (* FRet (FkDtor ..) (FvThunk t e) steps to FEval t e (FkDtor ..) *)
        intros out o Hr Fo. apply (Hc1 out o); [|exact Fo].
        rewrite (frun_next p j1 _ _ out (eq_refl : fstep p (FRet (FkDtor x args k) (FvThunk t e)) = FNext (FEval t e (FkDtor x args k)))).
        exact Hr.
      + intros y ty0 chi0 E. discriminate E.
  Qed.
End FLe.
