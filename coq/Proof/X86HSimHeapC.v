(* C06, forward simulation for HEAP statements: Switch (dispatch through the jump table, or
   fall-through for at most one clause, then the load of the fields) and Invoke (indirect jump through the
   data word of the closure, then the load of the captured environment). *)
From Coq Require Import List ZArith NArith String Bool Lia FMapPositive Permutation.
From SCC Require Import Proof.X86Mem Proof.X86MemFrame Proof.X86StackFrame.
From SCC Require Import Base.Sexp Lang.AxSyn Sem.AxSem Sem.AxHeap Model.ParMoves Model.Backend Model.X86 Sem.X86Sem Sem.X86Wf
     Model.Linearize Model.LinCheck Generated.Constants Proof.LinBasics Proof.LinTyping Proof.X86State Proof.X86Sel Proof.X86Exec Proof.X86ParMoves
     Proof.SubstGraph Proof.X86Subst Proof.X86SimRel Proof.X86SimStmt Proof.X86SimAddr Proof.X86SimClo
     Proof.X86HeapDefs Proof.X86HeapCongr Proof.X86HBridge Proof.X86HFrame
     Proof.X86HSimRel Proof.X86HSimStmt Proof.X86HConv Proof.X86HSimStore Proof.X86HSimLoad Proof.X86HLayout Proof.X86HSimHeapA Proof.X86HAnn Proof.X86HSimHeapB.
From SCC Require Proof.AxHeapSafe Model.Heap Proof.HeapMore Proof.HeapTrace Proof.HeapRep.
Import ListNotations.
Open Scope Z_scope.
Open Scope list_scope.

Lemma bind_snd : forall (xs : list ident) (vs : list value) e, bind xs vs = Some e -> map snd e = vs /\ map fst e = xs.
Proof.
  induction xs as [|x xs IH]; intros [|v vs] e H; cbn [bind] in H; try discriminate.
  - inversion H. auto.
  - destruct (bind xs vs) as [er|] eqn:B; [|discriminate]. inversion H; subst. destruct (IH vs er B) as [A1 A2]. cbn. now rewrite A1, A2.
Qed.
Lemma attach_nil_r (e : env) : e = [] -> forall ps, attach e ps = [].
Proof. intros ->. reflexivity. Qed.
Lemma load_ops_run n q hs : (0 < n)%nat -> hrun (load_ops n q) hs = Heap.load_object (Heap.nlinks n) q hs.
Proof. intros H. destruct n; [lia|]. reflexivity. Qed.

Lemma kinds_join (cx sg : ctx) (fs : list value) : same_kt cx sg -> same_kinds fs sg ->
  Forall2 (fun b f => chi_of f = bchi b /\ ty_of f = bty b) cx fs.
Proof.
  intros H. revert fs. induction H as [|b1 b2 l1 l2 [A1 A2] _ IH]; intros fs SK; inversion SK; subst; constructor.
  - match goal with H : _ /\ _ |- _ => destruct H as [B1 B2] end. split; congruence.
  - apply IH. assumption.
Qed.

Notation ptrs_attach := AxHeapSafe.ptrs_attach.
Lemma ctx_of_env_kinds (ce : list (ident * value)) :
  Forall2 (fun b f => chi_of f = bchi b /\ ty_of f = bty b) (ctx_of_env ce) (map snd ce).
Proof. induction ce as [|[x v] ce IH]; cbn; constructor; auto. Qed.
Lemma ctx_of_env_ids (ce : list (ident * value)) : env_ids ce = ids (ctx_of_env ce).
Proof. unfold env_ids, ids, ctx_of_env. rewrite map_map. reflexivity. Qed.
Lemma ctx_of_env_length (ce : list (ident * value)) : List.length (ctx_of_env ce) = List.length ce.
Proof. unfold ctx_of_env. apply map_length. Qed.

Section HC.
Variable im : image.
Variable p : prog.
Hypothesis IMG : img_ok im.
Hypothesis BACK : back_ok im.
Hypothesis SMALL : forall pc a, PM.find pc (addr_of im) = Some a -> a < 4611686018427387904.
Local Notation CLO := (hclo_ok im p).
Local Notation hrel := (hrel (ptypes p) CLO).
Local Notation hvrep := (hvrep (ptypes p) CLO).
Local Notation xrep := (xrep (ptypes p) CLO).
Local Notation xflds := (xflds (ptypes p) CLO).

(* a state that differs from s in rcx and the flags only keeps the relation *)
Lemma hrel_temp c he hs s s' sp :
  hrel c he hs s sp -> heap s' = heap s -> stack s' = stack s -> (forall r, r <> TEMP -> rget s' r = rget s r) ->
  hrel c he hs s' sp.
Proof.
  intros R HE ST RG. apply (hrel_keep (ptypes p) CLO c he hs s s' sp R).
  - destruct (hr_frame R) as [A B]. split; [rewrite RG; [exact A|discriminate]|exact B].
  - exact HE.
  - apply RG. discriminate.
  - apply RG. discriminate.
  - intros i b n t _ _ T. destruct (xtpos_ok _ _ _ T) as (_ & NT & _).
    destruct t as [r|q]; cbn [lget]; [apply RG; congruence|unfold sget; now rewrite ST].
Qed.

(* x_load of any number of fields (Switch, Invoke): with no field there is no code and nothing changes *)
Lemma hsim_load_any cE cx heE x vq q fs (e1 : env) hs s sp lc cl1 lc1 pc lk hl fl cl0 :
  hrel cE heE hs s sp ->
  lget s sp (mtpos (2 * N.of_nat (List.length cE))) = Some q ->
  xflds (hword s) fs q ->
  map snd e1 = fs -> env_ids e1 = ids cx ->
  Forall2 (fun b f => chi_of f = bchi b /\ ty_of f = bty b) cx fs ->
  NoDup (ids (cE ++ cx)) ->
  InvA HEAP_BASE hs (roots (heE ++ [(x, vq, q)])) hl fl cl0 -> P03 hs ->
  (fs <> [] -> HeapRep.rep_flds lk (Heap.m hs) fs q) ->
  Heap.frontier hs <= LIMIT ->
  x_load cx cE lc = Ok (cl1, lc1) -> code_at im pc cl1 -> labels_at_nh im pc cl1 ->
  exists s', exec_to im pc s (padd pc (List.length cl1)) s' /\ hframe_eq s s' sp /\
    hrel (cE ++ cx) (heE ++ attach e1 (load_ptrs hs (List.length cx) q)) (hrun (load_ops (List.length cx) q) hs) s' sp.
Proof.
  intros R LQ XF E1S E1F KIN ND IA K03 RF HFr LD CA LA. pose proof (Forall2_len _ _ _ KIN) as Lcx.
  destruct fs as [|f0 fr].
  - destruct cx; [|discriminate]. destruct e1; [|discriminate].
    cbn [x_load] in LD. inversion LD; subst cl1 lc1.
    exists s. split; [apply exec_refl|]. split; [apply hframe_eq_refl|].
    cbn [List.length load_ops hrun fold_left attach]. rewrite !app_nil_r. exact R.
  - destruct (hsim_load im (ptypes p) CLO cE cx heE x vq q (f0 :: fr) e1 hs s sp lc cl1 lc1 pc lk hl fl cl0
                R LQ XF ltac:(discriminate) E1S E1F KIN ND IA K03 (RF ltac:(discriminate)) HFr LD CA LA) as (s' & XL & FEL & RL).
    exists s'. split; [exact XL|]. split; [exact FEL|]. rewrite Lcx, load_ops_run by (cbn; lia). exact RL.
Qed.

Theorem hsim_switch c he hs s sp v t cls lc code lc' pc he0 x tn tag fs q cl e1 lk hl fl cl0 :
  hrel c he hs s sp -> lin_check (sigs_of p) c (Switch v t cls) = true ->
  xcs (ptypes p) (Switch v t cls) c lc = Ok (code, lc') -> code_at im pc code -> labels_at_nh im pc code ->
  (forall lcx, is_hash_label (type_label t lcx) = false) ->
  AxSem.split_last 1 he = Some (he0, [(x, VObj tn tag fs, q)]) ->
  find_clause cls tag = Some cl -> bind (vars (cl_ctx cl)) fs = Some e1 ->
  InvA HEAP_BASE hs (roots he) hl fl cl0 -> P03 hs -> Heap.frontier hs <= LIMIT ->
  (fs <> [] -> HeapRep.rep_flds lk (Heap.m hs) fs q) ->
  let c0 := removelast c in
  exists pcb lcb cb lcb' s',
    exec_to im pc s pcb s' /\
    xcs (ptypes p) (cl_body cl) (c0 ++ cl_ctx cl) lcb = Ok (cb, lcb') /\ code_at im pcb cb /\ labels_at_nh im pcb cb /\
    lin_check (sigs_of p) (c0 ++ cl_ctx cl) (cl_body cl) = true /\
    hrel (c0 ++ cl_ctx cl) (he0 ++ attach e1 (load_ptrs hs (List.length (cl_ctx cl)) q))
         (hrun (load_ops (List.length (cl_ctx cl)) q) hs) s' sp /\
    hframe_eq s s' sp.
Proof.
  intros R LC CS CA LA NHL SL FC BD IA K03 HFr RF c0'.
  apply split_last1_inv in SL. subst he.
  rewrite lin_check_switch in LC. apply andb_true_iff in LC as [_ LC].
  destruct (split_lastn 1 c) as [[c0 [|b [|b' r]]]|] eqn:SLc; try discriminate.
  apply split_lastn_Some in SLc as [-> _]. unfold c0'. rewrite removelast_last. clear c0'.
  apply andb_true_iff in LC as [LC LCc]. apply andb_true_iff in LC as [LC CO]. apply andb_true_iff in LC as [LC TY].
  apply andb_true_iff in LC as [IDb CH]. apply N.eqb_eq in IDb. apply ty_eqb_eq in TY. apply chi_eqb_eq in CH.
  destruct (cs_switch _ _ _ _ _ _ _ _ CS) as (c1 & c3 & C1 & GC & ->).
  rewrite removelast_last in GC.
  destruct (hrel_last R) as (L0 & _ & V). rewrite <- L0 in V.
  destruct (hvrep_obj V) as (K2 & t1 & t2 & dw & T1 & T2 & L1 & L2 & TW & XF). rewrite K2 in *. subst t.
  set (fresh := type_label (Decl tn) (lc + 1)%N) in *.
  destruct TW as (d & k' & xk & FD & XP' & -> & FX & SK).
  unfold cls_ok, type_xtors in CO. cbn [sigs_of sg_types] in CO. rewrite FD in CO.
  destruct (find_clause_pos cls (txtors d) tag cl 0%N CO FC) as (k & xk0 & Hk & Hxk & XP & FX' & SMk).
  assert (xk0 = xk) by congruence. subst xk0.
  assert (Ek : k' = N.of_nat k) by (rewrite XP in XP'; inversion XP'; lia). subst k'.
  destruct (bind_snd _ _ _ BD) as [E1S E1N].
  (* the label, the table, the clauses *)
  pose proof CA as CA0. apply code_at_app in CA as [CA1 CA]. apply labels_at_nh_app in LA as [_ LA].
  set (pcl := padd pc (List.length c1)) in *.
  assert (CL0 : PM.find pcl (code im) = Some (LAB fresh)).
  { pose proof CA as X. rewrite <- app_assoc in X. cbn [app] in X. apply code_at_cons in X as [X _]. exact X. }
  destruct (io_addr im IMG pcl _ CL0) as (a & AL & GE).
  assert (FL : find_label (labels im) fresh = Some pcl).
  { pose proof LA as X. rewrite <- app_assoc in X. cbn [app] in X. rewrite (X O fresh eq_refl (NHL _)). reflexivity. }
  pose proof (label_addr_at im fresh pcl a FL AL) as LAD.
  destruct (dispatch_layout im IMG BACK (ptypes p) (fun cx lc0 => x_load cx c0 lc0) (fun cx => c0 ++ cx) pcl fresh cls c3 (lc + 1)%N lc' a
              CA LA (NHL _) GC AL k cl Hk) as (i & pcc & lcl & cl1 & lcb & cb & lcb' & IX & (pca & PA) & ARR & DOWN & LD & BDY & CAb & LAb).
  (* control reaches the code of the clause; only rcx and the flags change *)
  unfold clause in *.
  assert (JUMP : exists sj, exec_to im pc s pcc sj /\ heap sj = heap s /\ out sj = out s /\ stack sj = stack s /\
                            (forall r, r <> TEMP -> rget sj r = rget s r)).
  { destruct (Nat.leb (List.length cls) 1) eqn:LE.
    - subst c1. exists s. split; [apply (DOWN eq_refl)|auto].
    - destruct C1 as (tmpv & TVs & ->).
      assert (tmpv = t2).
      { rewrite <- IDb in TVs. rewrite (vt_of_nth0 (c0 ++ [b]) (List.length c0) b (hr_nodup R) (nth_error_mid _ _ _)) in TVs.
        rewrite L0 in T2. congruence. }
      subst tmpv. unfold switch_head in CA1. unfold clause in CA1. rewrite LE in CA1.
      set (off := jump_length (N.of_nat k)) in *.
      assert (OFF : 0 <= off) by (unfold off, jump_length; lia).
      pose proof (SMALL _ _ PA) as SM. pose proof (hr_frame R) as F.
      assert (WR : wrap (a + off) = a + off) by (apply wrap_small_range; unfold CODE_BASE in GE; lia).
      cbn [x_load_label x_jump] in CA1. apply code_at_cons in CA1 as [CLE CA1].
      set (sa := rset s TEMP (Some a)).
      assert (STa : step im (LEAL TEMP fresh) s = Next sa) by (cbn [step]; now rewrite LAD).
      assert (Fa : frame_ok sa sp) by (apply frame_ok_rset; [discriminate|exact F]).
      destruct (xtpos_ok _ _ _ T2) as (Lt2 & Nt2 & _).
      set (sb := set_flags (rset sa TEMP (Some (a + off))) None).
      assert (GO : step im (JMP TEMP) sb = Jump sb i).
      { cbn [step]. unfold need. unfold sb. rewrite rget_set_flags, rget_rset_same. unfold goto_addr. now rewrite IX. }
      exists sb. split; [|unfold sb, sa; repeat split; auto; intros r Hr; rewrite rget_set_flags, !rget_rset_other by congruence; reflexivity].
      eapply exec_next; [exact CLE|exact STa|].
      unfold x_arith, op_commutative in CA1. cbn [xtemp_eqb N.eqb] in CA1. rewrite N.eqb_refl in CA1.
      destruct t2 as [r|q']; cbn [add_to_register app lget loc_ok] in *.
      + apply code_at_cons in CA1 as [CADD CA1]. apply code_at_cons in CA1 as [CJ _].
        eapply exec_next; [exact CADD| |].
        { cbn [step]. unfold arith_rr, need. unfold sa at 1. rewrite rget_rset_same.
          unfold sa at 1. rewrite rget_rset_other by congruence. rewrite L2. rewrite WR. reflexivity. }
        eapply exec_jump; [exact CJ|exact GO|apply ARR].
      + apply code_at_cons in CA1 as [CADD CA1]. apply code_at_cons in CA1 as [CJ _].
        eapply exec_next; [exact CADD| |].
        { cbn [step]. unfold arith_rm, need. unfold sa at 1. rewrite rget_rset_same.
          rewrite (ea_stack sa sp) by (exact Fa || exact Lt2). unfold withm. rewrite mload_slot by (exact Fa || exact Lt2).
          unfold sa at 1. rewrite sget_rset, L2. rewrite WR. reflexivity. }
        eapply exec_jump; [exact CJ|exact GO|apply ARR]. }
  destruct JUMP as (sj & XJ & HEj & OUj & STj & RGj).
  pose proof (hrel_temp _ _ _ s sj sp R HEj STj RGj) as Rj.
  assert (LCb : lin_check (sigs_of p) (c0 ++ cl_ctx cl) (cl_body cl) = true).
  { unfold lin_clauses_sw in LCc. rewrite forallb_forall in LCc. apply LCc. eapply nth_error_In; eauto. }
  apply code_at_app in CAb as [CAl CAbd]. apply labels_at_nh_app in LAb as [LAl LAbd].
  assert (XFj : xflds (hword sj) fs q).
  { eapply xflds_ext; [|exact XF]. intros a0 _. apply hword_heap. exact HEj. }
  assert (LQ : lget sj sp (mtpos (2 * N.of_nat (List.length c0))) = Some q).
  { pose proof T1 as T1'. apply xtpos_mtpos in T1' as [E1 _]. cbn [tnum_n] in E1. rewrite N.add_0_r, L0 in E1. rewrite <- E1.
    destruct (xtpos_ok _ _ _ T1) as (_ & NT & _).
    destruct t1 as [r|q']; cbn [lget] in *; [rewrite RGj by congruence; exact L1|unfold sget in *; rewrite STj; exact L1]. }
  assert (KIN : Forall2 (fun b0 f => chi_of f = bchi b0 /\ ty_of f = bty b0) (cl_ctx cl) fs).
  { apply sig_match_iff in SMk. exact (kinds_join _ _ _ SMk SK). }
  assert (E1F : env_ids e1 = ids (cl_ctx cl)).
  { unfold env_ids. rewrite <- (map_map fst idn), E1N. unfold vars, ids. now rewrite map_map. }
  destruct (hsim_load_any c0 (cl_ctx cl) he0 x (VObj tn tag fs) q fs e1 hs sj sp lcl cl1 lcb pcc lk hl fl cl0
              (hrel_prefix (ptypes p) CLO c0 b he0 _ hs sj sp Rj) LQ XFj E1S E1F KIN (lin_nodup _ _ _ LCb) IA K03 RF HFr LD CAl LAl)
    as (s' & XL & FEL & RL).
  exists (padd pcc (List.length cl1)), lcb, cb, lcb', s'.
  split; [eapply exec_to_trans; eassumption|]. split; [exact BDY|]. split; [exact CAbd|]. split; [exact LAbd|]. split; [exact LCb|].
  split; [exact RL|]. eapply hframe_eq_trans; [|exact FEL]. split; [exact OUj|apply stack_frame_eq; exact STj].
Qed.
Theorem hsim_invoke c he hs s sp v tag t args cd lc lc' pc he0 x tn cls ce q cl e1 lk hl fl cl0 :
  hrel c he hs s sp ->
  (forall pc0 c0, PM.find pc0 (code im) = Some c0 -> instr_wf c0 = true) ->
  AxSem.split_last 1 he = Some (he0, [(x, VClo tn cls ce, q)]) ->
  find_clause cls tag = Some cl -> bind (vars (cl_ctx cl)) (map snd (erase_env he0)) = Some e1 ->
  lin_check (sigs_of p) c (Invoke v tag t args) = true ->
  xcs (ptypes p) (Invoke v tag t args) c lc = Ok (cd, lc') -> code_at im pc cd ->
  InvA HEAP_BASE hs (roots he) hl fl cl0 -> P03 hs -> Heap.frontier hs <= LIMIT ->
  (ce <> [] -> HeapRep.rep_flds lk (Heap.m hs) (map snd ce) q) ->
  exists pcb lcb cb lcb' s',
    exec_to im pc s pcb s' /\
    xcs (ptypes p) (cl_body cl) (cl_ctx cl ++ ctx_of_env ce) lcb = Ok (cb, lcb') /\ code_at im pcb cb /\ labels_at_nh im pcb cb /\
    lin_check (sigs_of p) (cl_ctx cl ++ ctx_of_env ce) (cl_body cl) = true /\
    ann_check (cl_ctx cl ++ ctx_of_env ce) (cl_body cl) = true /\
    hrel (cl_ctx cl ++ ctx_of_env ce) (attach e1 (ptrs he0) ++ attach ce (load_ptrs hs (List.length ce) q))
         (hrun (load_ops (List.length ce) q) hs) s' sp /\
    hframe_eq s s' sp.
Proof.
  intros R ENC SL FC BD LC CS CA IA K03 HFr RF.
  apply split_last1_inv in SL. subst he.
  cbn [lin_check] in LC. apply andb_true_iff in LC as [_ LC].
  destruct (split_lastn 1 c) as [[c0 [|b [|b' r]]]|] eqn:SLc; try discriminate.
  apply split_lastn_Some in SLc as [-> _].
  apply andb_true_iff in LC as [LC AO]. apply andb_true_iff in LC as [LC TY]. apply andb_true_iff in LC as [IDb CH].
  apply N.eqb_eq in IDb. apply ty_eqb_eq in TY. apply chi_eqb_eq in CH.
  destruct (hrel_last R) as (L0 & _ & V). rewrite <- L0 in V.
  destruct (hvrep_clo V) as (K2 & t1 & t2 & a & T1 & T2 & L1 & L2 & CLOa & XF). rewrite K2 in *. subst t.
  destruct CLOa as (CO & AB & ENTRY).
  destruct (cs_invoke _ _ _ _ _ _ _ _ _ CS) as (tmpv & d & TV & LT & _ & CODE).
  assert (TVeq : tmpv = t2).
  { rewrite <- IDb in TV. rewrite (vt_of_nth0 (c0 ++ [b]) (List.length c0) b (hr_nodup R) (nth_error_mid _ _ _)) in TV.
    rewrite L0 in T2. congruence. }
  subst tmpv.
  unfold cls_ok, type_xtors in CO. cbn [sigs_of sg_types] in CO.
  unfold lookup_type in LT.
  destruct (find (fun d => ident_eqb (tname d) tn) (ptypes p)) as [d'|] eqn:FD; [|discriminate]. inversion LT; subst d'. clear LT.
  destruct (find_clause_pos cls (txtors d) tag cl 0%N CO FC) as (k & xk & Hk & Hxk & XP & FX & SMk).
  pose proof (cls_sig_length _ _ CO) as LCL.
  destruct (ENTRY k cl Hk) as (i & pcc & lcl & cl1 & lcb & cb & lcb' & IX & SMa & ARR & LD & BDY & CAb & LAb & LCb & ANb).
  pose proof (hr_frame R) as F.
  assert (T2' : xtpos Snd (List.length c0) = Ok t2) by (rewrite <- L0; exact T2).
  assert (T1' : xtpos Fst (List.length c0) = Ok t1) by (rewrite <- L0; exact T1).
  destruct (xtpos_ok _ _ _ T2') as (Lt2 & Nt2 & _ & NFt2 & NHt2).
  destruct (xtpos_ok _ _ _ T1') as (Lt1 & Nt1 & _).
  assert (NE12 : t1 <> t2).
  { intros E; subst. destruct (SubstGraph.tpos_inj x86_backend x86_backend_ok _ _ _ _ _ T1' T2') as [E _]. discriminate. }
  (* the arguments, relabelled *)
  assert (SM0 : sig_match c0 (cl_ctx cl) = true).
  { unfold args_ok, lookup_xtor, type_xtors in AO. cbn [sigs_of sg_types] in AO. rewrite FD, FX in AO. eapply sig_match_join; eauto. }
  assert (LC0 : List.length (cl_ctx cl) = List.length c0) by (apply sig_match_iff, same_kt_length in SM0; lia).
  assert (NDc : NoDup (ids (cl_ctx cl))).
  { pose proof (lin_nodup _ _ _ LCb) as X. unfold ids in *. rewrite map_app in X. eapply NoDup_app_l; eauto. }
  pose proof (hbind_rel (ptypes p) CLO c0 he0 hs s sp (cl_ctx cl) e1 (hrel_prefix (ptypes p) CLO c0 b he0 _ hs s sp R) NDc SM0 BD) as R1.
  assert (Le1 : List.length e1 = List.length (ptrs he0)).
  { destruct (bind_snd _ _ _ BD) as [_ B2]. apply (f_equal (@List.length ident)) in B2. unfold vars, ptrs in *. rewrite !map_length in *. lia. }
  (* what the jump leaves alone *)
  assert (KEEPJ : forall s', frame_ok s' sp -> heap s' = heap s -> out s' = out s -> stack s' = stack s ->
             (forall r, r <> TEMP -> XR r <> t2 -> rget s' r = rget s r) ->
             hrel (cl_ctx cl) (attach e1 (ptrs he0)) hs s' sp /\ lget s' sp (mtpos (2 * N.of_nat (List.length (cl_ctx cl)))) = Some q /\
             hframe_eq s s' sp).
  { intros s' F' HE' OU' ST' RG'.
    assert (LG : forall l, loc_ok l -> l <> XR TEMP -> l <> t2 -> lget s' sp l = lget s sp l).
    { intros l Ll N1 N2. destruct l as [r|q']; cbn [lget]; [apply RG'; congruence|unfold sget; now rewrite ST']. }
    split; [|split].
    - apply (hrel_keep (ptypes p) CLO _ _ hs s s' sp R1 F' HE').
      + apply RG'; [discriminate|congruence].
      + apply RG'; [discriminate|congruence].
      + intros j bj n tj Hj _ Tj. destruct (xtpos_ok _ _ _ Tj) as (A & B & _). apply LG; auto.
        intros E; subst tj. assert (Lj : (j < List.length (cl_ctx cl))%nat) by (apply nth_error_Some; congruence).
        destruct (SubstGraph.tpos_inj x86_backend x86_backend_ok _ _ _ _ _ Tj T2') as [_ E]. lia.
    - rewrite LC0. pose proof T1' as T1''. apply xtpos_mtpos in T1'' as [E1 _]. cbn [tnum_n] in E1. rewrite N.add_0_r in E1.
      rewrite <- E1. rewrite LG; auto.
    - split; [exact OU'|apply stack_frame_eq; exact ST']. }
  assert (GO : forall rj s1 off, rget s1 rj = Some (a + off) ->
             off = (if Nat.leb (List.length cls) 1 then 0 else jump_length (N.of_nat k)) ->
             step im (JMP rj) s1 = Jump s1 i).
  { intros rj s1 off RG ->. cbn [step]. unfold need. rewrite RG. unfold goto_addr. now rewrite IX. }
  assert (JUMP : exists sj, exec_to im pc s pcc sj /\ hrel (cl_ctx cl) (attach e1 (ptrs he0)) hs sj sp /\
                            lget sj sp (mtpos (2 * N.of_nat (List.length (cl_ctx cl)))) = Some q /\ hframe_eq s sj sp /\ heap sj = heap s).
  { rewrite <- LCL in CODE. destruct (Nat.leb (List.length cls) 1) eqn:LE.
    - subst cd. destruct t2 as [r|q']; cbn [x_jump lget loc_ok] in *.
      + apply code_at_cons in CA as [CJ _].
        destruct (KEEPJ s F eq_refl eq_refl eq_refl (fun _ _ _ => eq_refl)) as (A1 & A2 & A3).
        exists s. split; [|auto]. eapply exec_jump; [exact CJ|apply (GO r s 0); [rewrite Z.add_0_r; exact L2|reflexivity]|apply ARR].
      + apply code_at_cons in CA as [C0 CA]. apply code_at_cons in CA as [CJ _].
        set (s1 := rset s TEMP (Some a)).
        destruct (KEEPJ s1) as (A1 & A2 & A3); try reflexivity.
        { apply frame_ok_rset; [discriminate|exact F]. }
        { intros r N1 _. unfold s1. apply rget_rset_other. congruence. }
        exists s1. split; [|auto].
        eapply exec_next; [exact C0|rewrite (step_MOVL_slot im s sp F) by exact Lt2; rewrite L2; reflexivity|].
        eapply exec_jump; [exact CJ|apply (GO TEMP _ 0); [rewrite Z.add_0_r; apply rget_rset_same|reflexivity]|apply ARR].
    - destruct CODE as (k' & XP' & ->). assert (k' = N.of_nat k) by (rewrite XP in XP'; inversion XP'; lia). subst k'.
      set (off := jump_length (N.of_nat k)) in *.
      assert (OFF : 0 <= off) by (unfold off, jump_length; lia).
      destruct t2 as [r|q']; cbn [x_add_and_jump lget loc_ok] in *.
      + apply code_at_cons in CA as [C0 CA]. apply code_at_cons in CA as [CJ _].
        pose proof (ENC _ _ C0) as W. cbn [instr_wf] in W. apply andb_true_iff in W as [_ FI].
        set (s1 := set_flags (rset s r (Some (a + off))) None).
        assert (ST : step im (ADDI r off) s = Next s1).
        { cbn [step]. rewrite FI. unfold need. rewrite L2. rewrite wrap_small_range by lia. reflexivity. }
        destruct (KEEPJ s1) as (A1 & A2 & A3); try reflexivity.
        { unfold s1. apply frame_ok_set_flags, frame_ok_rset; auto. }
        { intros r0 N1 N2. unfold s1. rewrite rget_set_flags. apply rget_rset_other. congruence. }
        exists s1. split; [|auto].
        eapply exec_next; [exact C0|exact ST|].
        eapply exec_jump; [exact CJ|apply (GO r s1 off); [unfold s1; rewrite rget_set_flags; apply rget_rset_same|reflexivity]|apply ARR].
      + apply code_at_cons in CA as [C0 CA]. apply code_at_cons in CA as [C1 CA]. apply code_at_cons in CA as [CJ _].
        pose proof (ENC _ _ C1) as W. cbn [instr_wf] in W. apply andb_true_iff in W as [_ FI].
        set (s0 := rset s TEMP (Some a)). set (s1 := set_flags (rset s0 TEMP (Some (a + off))) None).
        assert (ST : step im (ADDI TEMP off) s0 = Next s1).
        { cbn [step]. rewrite FI. unfold need. unfold s0 at 1. rewrite rget_rset_same. rewrite wrap_small_range by lia. reflexivity. }
        destruct (KEEPJ s1) as (A1 & A2 & A3); try reflexivity.
        { unfold s1, s0. apply frame_ok_set_flags, frame_ok_rset; [discriminate|]. apply frame_ok_rset; [discriminate|exact F]. }
        { intros r0 N1 _. unfold s1, s0. rewrite rget_set_flags. rewrite !rget_rset_other by congruence. reflexivity. }
        exists s1. split; [|auto].
        eapply exec_next; [exact C0|rewrite (step_MOVL_slot im s sp F) by exact Lt2; rewrite L2; reflexivity|].
        eapply exec_next; [exact C1|exact ST|].
        eapply exec_jump; [exact CJ|apply (GO TEMP s1 off); [unfold s1; rewrite rget_set_flags; apply rget_rset_same|reflexivity]|apply ARR]. }
  destruct JUMP as (sj & XJ & Rj & LQ & FEj & HEj).
  apply code_at_app in CAb as [CAl CAbd]. apply labels_at_nh_app in LAb as [LAl LAbd].
  assert (XFj : xflds (hword sj) (map snd ce) q).
  { eapply xflds_ext; [|exact XF]. intros a0 _. apply hword_heap. exact HEj. }
  assert (IA' : InvA HEAP_BASE hs (roots (attach e1 (ptrs he0) ++ [(x, VClo tn cls ce, q)])) hl fl cl0).
  { assert (ER : roots (attach e1 (ptrs he0) ++ [(x, VClo tn cls ce, q)]) = roots (he0 ++ [(x, VClo tn cls ce, q)])).
    { unfold roots. f_equal. unfold ptrs at 1 3. rewrite !map_app. f_equal. exact (ptrs_attach e1 (ptrs he0) Le1). }
    rewrite ER. exact IA. }
  destruct (hsim_load_any (cl_ctx cl) (ctx_of_env ce) (attach e1 (ptrs he0)) x (VClo tn cls ce) q (map snd ce) ce hs sj sp lcl cl1 lcb pcc lk hl fl cl0
              Rj LQ XFj eq_refl (ctx_of_env_ids ce) (ctx_of_env_kinds ce) (lin_nodup _ _ _ LCb) IA' K03
              (fun NE => RF (fun E => NE (f_equal (map snd) E))) HFr LD CAl LAl)
    as (s' & XL & FEL & RL).
  rewrite ctx_of_env_length in RL.
  exists (padd pcc (List.length cl1)), lcb, cb, lcb', s'.
  split; [eapply exec_to_trans; eassumption|]. split; [exact BDY|]. split; [exact CAbd|]. split; [exact LAbd|]. split; [exact LCb|]. split; [exact ANb|].
  split; [exact RL|eapply hframe_eq_trans; eassumption].
Qed.
End HC.
