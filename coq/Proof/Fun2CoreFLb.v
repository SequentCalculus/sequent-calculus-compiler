(* Proof/Fun2CoreFLb  -  Core-side multi-step lemmas and the SHARING lemma of the simulation:
   if k is what cont means (CK), it is also what the shared continuation
        mu~ x. share_f_n(free variables of the lifted body)
   means, because the lifted definition share_f_n - looked up in the compiled program, its
   parameters bound positionally to the values of exactly the free variables of its body - runs the
   body of cont in an environment that agrees with the closure's on those free variables. *)
From Coq Require Import List ZArith NArith String Bool Lia.
From SCC Require Import Proof.CoreInd.
From SCC Require Import Base.Sexp Lang.SynUtil Lang.FunSyn Lang.FunTy Lang.CoreSyn.
From SCC Require Import Sem.AxSem Sem.CoreSem Sem.FunSem Model.Fun2Core.
From SCC Require Import Proof.Fun2CoreProof Proof.Fun2CoreSim Proof.Fun2CoreTfv Proof.Fun2CoreInv Proof.Fun2CoreUB
     Proof.Fun2CoreRel Proof.Fun2CoreFLa.
Import ListNotations.
Open Scope string_scope.
Open Scope list_scope.

Section FLb.
  Variable p : fcprog.
  Variable cp : cprog.
  Hypothesis Hcod : cpcodata cp = codata_of p.

  Definition cargs_res (done : list bval) (rest : list carg) (ce : cenv) (f : fin) : sres :=
    match rest with
    | [] => finish_args cp f (rev_append done [])
    | a :: r => SNext (Arg a ce (MArgs done r ce f))
    end.
  Lemma start_args_eq : forall args ce f, start_args cp args ce f = cargs_res [] args ce f.
  Proof. intros [|a r] ce f; reflexivity. Qed.
  Lemma cstep_app_margs : forall done rest ce f b,
    cstep cp (App (MArgs done rest ce f) b) = cargs_res (b :: done) rest ce f.
  Proof. intros done [|a r] ce f b; reflexivity. Qed.

  Definition lookups (env : cenv) (bs : list cbinding) : list bval :=
    map (fun bb => match clookup env (cbvar bb) with Some b => b | None => BP (PInt 0) end) bs.

  (* arguments made from bindings evaluate to the values the environment has for them; [tail]: further arguments
     (the entry point of a program that calls main passes the parameters, then the exit continuation) *)
  Lemma bind_args_run_tail : forall bs env f done tail,
    (forall bb, In bb bs -> exists b', clookup env (cbvar bb) = Some b' /\ ckind b' = cbchi bb) ->
    rreach cp (cargs_res done (map arg_of_binding bs ++ tail) env f)
           (cargs_res (rev_append (lookups env bs) done) tail env f).
  Proof.
    induction bs as [|bb r IH]; intros env f done tail Hk.
    - simpl. apply rreach_refl.
    - destruct (Hk bb (or_introl eq_refl)) as [b' [Hl Hkind]].
      change (map arg_of_binding (bb :: r) ++ tail) with (arg_of_binding bb :: (map arg_of_binding r ++ tail)).
      unfold cargs_res at 1. apply rreach_step.
      assert (Hstep : cstep cp (Arg (arg_of_binding bb) env (MArgs done (map arg_of_binding r ++ tail) env f)) =
                      SNext (App (MArgs done (map arg_of_binding r ++ tail) env f) b')).
      { unfold arg_of_binding. destruct bb as [v c ty]. simpl in *. destruct c; simpl; rewrite Hl;
          destruct b' as [pv|kv]; simpl in Hkind; try discriminate; reflexivity. }
      rewrite Hstep. apply rreach_step. rewrite cstep_app_margs.
      eapply rreach_trans; [apply IH; intros bb0 Hb0; apply Hk; right; exact Hb0|].
      simpl. rewrite Hl. apply rreach_refl.
  Qed.

  Lemma bind_args_run : forall bs env f done,
    (forall bb, In bb bs -> exists b', clookup env (cbvar bb) = Some b' /\ ckind b' = cbchi bb) ->
    rreach cp (cargs_res done (map arg_of_binding bs) env f)
           (finish_args cp f (rev_append done [] ++ lookups env bs)).
  Proof.
    intros bs env f done Hk. rewrite <- (app_nil_r (map arg_of_binding bs)).
    eapply rreach_trans; [apply bind_args_run_tail; exact Hk|]. simpl.
    rewrite !rev_append_rev, !app_nil_r, rev_app_distr, rev_involutive. apply rreach_refl.
  Qed.

  Lemma cbind_lookups : forall bs env,
    (forall bb, In bb bs -> exists b', clookup env (cbvar bb) = Some b') ->
    exists env_l, cbind (cvars bs) (lookups env bs) [] = Some env_l /\
                  forall x, In x (cvars bs) -> clookup env_l x = clookup env x.
  Proof.
    induction bs as [|bb r IH]; intros env Hk.
    - exists []. split; [reflexivity | intros x []].
    - destruct (IH env) as [el [Hb Hl]]; [intros bb0 Hb0; apply Hk; right; exact Hb0|].
      destruct (Hk bb (or_introl eq_refl)) as [b' Hb'].
      unfold cvars in *. simpl. rewrite Hb. rewrite Hb'. eexists. split; [reflexivity|].
      intros x Hx. rewrite clookup_cons. destruct (cident_eqb (cbvar bb) x) eqn:E.
      + apply cident_eqb_eq in E. subst x. symmetry. exact Hb'.
      + destruct Hx as [Hx|Hx]; [apply cident_eqb_neq in E; congruence | apply Hl; exact Hx].
  Qed.

  (* calling a definition whose parameters are exactly the bindings bs, with those variables as
     arguments: the body runs in an environment that agrees with the caller's on the names of bs *)
  Lemma call_bindings_run : forall name bs body ty env,
    cfind_def cp (new_id name) = Some (mkcd (new_id name) bs body) ->
    (forall bb, In bb bs -> exists b', clookup env (cbvar bb) = Some b' /\ ckind b' = cbchi bb) ->
    exists env_l, agree (cnames bs) env env_l /\
                  rreach cp (SNext (Run (CCall (new_id name) (map arg_of_binding bs) ty) env)) (SNext (Run body env_l)).
  Proof.
    intros name bs body ty env Hf Hk.
    destruct (cbind_lookups bs env) as [env_l [Hb Hl]].
    { intros bb Hb. destruct (Hk bb Hb) as [b' [E _]]. eauto. }
    exists env_l. split; [intros x Hx; apply Hl; exact Hx|].
    apply rreach_step. simpl. rewrite start_args_eq.
    eapply rreach_trans; [apply bind_args_run; exact Hk|].
    simpl. rewrite Hf. simpl. rewrite Hb. apply rreach_refl.
  Qed.

  Lemma share_CK : forall n cur cont st cont1 st0 k ce (S : cident -> Prop),
    share cur cont st = Ok (cont1, st0) -> cont_is_small cont = false -> cont_shape cp false cont ->
    (forall x, In x (cnames (fvt cont)) -> exists y, x = new_id y /\ In y (st_used_vars st)) ->
    (forall d, In d (st_lifted st0) -> cfind_def cp (cdname d) = Some d) ->
    CK p cp n false k cont ce S -> CK p cp n false k cont1 ce S /\ cont_shape cp false cont1.
  Proof.
    intros n cur cont st cont1 st0 k ce S Hsh Hns Hshape Hnames Hlift [Hkinds HK].
    destruct (share_inv _ _ _ _ _ Hsh) as [var [ty [body [stv [name [Hm [Hv [Hl Hk1]]]]]]]].
    assert (Hdef : cfind_def cp (new_id name) = Some (mkcd (new_id name) (tfv_stmt body []) body)).
    { apply (Hlift (mkcd (new_id name) (tfv_stmt body []) body)). rewrite Hl. left. reflexivity. }
    fold (fvs body) in Hdef.
    (* facts about the body and the variable, uniform in the two cases *)
    assert (HF : (forall bb, In bb (fvs body) -> bb = mkcb var CPrd ty \/ In bb (fvt cont)) /\
                 (forall bb, In bb (fvt cont) -> In bb (fvs body) /\ bb <> mkcb var CPrd ty) /\
                 ~ In var (cnames (fvt cont)) /\ is_codata cp ty = false /\
                 (KS p cp n false k cont ce ->
                  forall j, (j < n)%nat -> forall v pv, dval v -> vrel p cp j v pv ->
                  forall env, agree (cnames (fvs body)) ((var, BP pv) :: ce) env ->
                  sim p cp j (FRet k v) (SNext (Run body env)))).
    { destruct cont; simpl in Hshape; try contradiction; try discriminate Hns; try discriminate Hshape.
      - (* mu~ *)
        destruct Hm as [E1 [E2 [E3 E4]]]. subst. destruct Hshape as [_ [Hc [Hcd Hclean]]]. subst c.
        split; [|split; [|split; [|split]]].
        + intros bb Hb. destruct (cbinding_eqb bb (mkcb v CPrd t)) eqn:E.
          * left. apply cbinding_eqb_eq. exact E.
          * right. apply fvt_mu_2; [exact Hb|]. intros Eb. subst bb. rewrite (proj2 (cbinding_eqb_eq _ _) eq_refl) in E. discriminate.
        + intros bb Hb. apply fvt_mu_iff in Hb. exact Hb.
        + exact Hclean.
        + exact Hcd.
        + intros HKS. exact HKS.
      - (* case: through a fresh variable *)
        destruct Hm as [x [Hfr [E1 [E2 E3]]]]. subst var ty body.
        destruct (fresh_in_vars_inv _ _ _ _ Hfr) as [Hfresh _].
        assert (Hx : ~ In (new_id x) (cnames (fvt (CXCase c cls t)))).
        { intros Hin. destruct (Hnames _ Hin) as [y [Ey Hy]]. apply new_id_inj in Ey. subst y. exact (Hfresh Hy). }
        split; [|split; [|split; [|split]]].
        + intros bb Hb. apply fvs_cut in Hb. destruct Hb as [Hb|Hb]; [left; apply fvt_var in Hb; exact Hb | right; exact Hb].
        + intros bb Hb. split; [apply fvs_cut; right; exact Hb|]. intros Eb. subst bb. apply Hx. apply (in_cnames _ _ Hb).
        + exact Hx.
        + exact (proj2 Hshape).
        + intros HKS j Hj v pv Hd Hvr env Ha. apply sim_cstep. rewrite cstep_cut_var; [|exact Hshape].
          assert (Hag : agree (cnames (fvt (CXCase c cls t))) ce env).
          { intros y Hy. rewrite (Ha y).
            - rewrite clookup_cons. destruct (cident_eqb (new_id x) y) eqn:E; [|reflexivity].
              apply cident_eqb_eq in E. subst y. contradiction.
            - apply in_cnames_inv in Hy. destruct Hy as [bb [Hb E]]. subst y. apply in_cnames. apply fvs_cut. right. exact Hb. }
          destruct (HKS env Hag) as [kv [Hh Hkb]]. rewrite Hh.
          rewrite (Ha (new_id x)).
          * rewrite clookup_cons, cident_eqb_refl. eapply Kb_use; eauto.
          * apply (in_cnames (mkcb (new_id x) CPrd (cterm_type (CXCase c cls t)))). apply fvs_cut. left. apply fvt_var. reflexivity. }
    destruct HF as [F2 [F3 [F4 [F6 F5]]]].
    assert (F1 : forall bb, In bb (fvt cont1) <-> In bb (fvs body) /\ bb <> mkcb var CPrd ty).
    { intros bb. subst cont1. rewrite fvt_mu_iff. simpl flip_chi.
      rewrite (fvs_call bb (new_id name) (map arg_of_binding (tfv_stmt body [])) ty).
      rewrite fva_arg_of_binding. reflexivity. }
    split; [split|].
    - (* kinds *)
      intros bb Hb Hs. apply F1 in Hb. destruct Hb as [Hb Hne]. destruct (F2 bb Hb) as [E|Hc]; [contradiction|].
      apply Hkinds; assumption.
    - (* meaning *)
      intros Hall.
      assert (HKS : KS p cp n false k cont ce).
      { apply HK. intros x Hx. apply Hall. apply in_cnames_inv in Hx. destruct Hx as [bb [Hb E]]. subst x.
        apply in_cnames. apply F1. apply F3. exact Hb. }
      subst cont1. simpl. intros j Hj v pv Hd Hvr env Ha.
      destruct (call_bindings_run name (fvs body) body ty env Hdef) as [env_l [Hal Hreach]].
      { intros bb Hb.
        assert (Hlook : clookup env (cbvar bb) = clookup ((var, BP pv) :: ce) (cbvar bb)).
        { apply Ha. apply in_cnames. apply (proj2 (fvs_call _ _ _ _)). apply fva_arg_of_binding. exact Hb. }
        rewrite Hlook, clookup_cons. destruct (F2 bb Hb) as [E|Hc].
        - subst bb. simpl. rewrite cident_eqb_refl. exists (BP pv). split; reflexivity.
        - assert (Hne : cident_eqb var (cbvar bb) = false).
          { apply cident_eqb_neq. intros E. apply F4. rewrite E. apply in_cnames. exact Hc. }
          rewrite Hne. apply Hkinds; [exact Hc|]. apply Hall. apply in_cnames. apply F1. apply F3. exact Hc. }
      eapply sim_rreach; [|exact Hreach]. apply (F5 HKS j Hj v pv Hd Hvr).
      intros y Hy. rewrite (Hal y Hy). apply Ha.
      apply in_cnames_inv in Hy. destruct Hy as [bb [Hb E]]. subst y. apply in_cnames.
      apply (proj2 (fvs_call _ _ _ _)). apply fva_arg_of_binding. exact Hb.
    - (* shape *)
      subst cont1. simpl. split; [reflexivity|]. split; [reflexivity|]. split; [exact F6|].
      intros Hin. apply in_cnames_inv in Hin. destruct Hin as [bb [Hb E]].
      change (In bb (fvt (CMu CCns var (CCall (new_id name) (map arg_of_binding (tfv_stmt body [])) ty) ty))) in Hb.
      apply F1 in Hb.
      destruct Hb as [Hb1 Hne]. destruct (F2 bb Hb1) as [Eb|Hc]; [contradiction|].
      apply F4. rewrite <- E. apply in_cnames. exact Hc.
  Qed.
End FLb.
