(* C07, forward simulation for HEAP statements on AArch64, part 2: the statements that do not touch the heap
   (Literal, Op, IfC, Exit, PrintI64, Call) under the relation `hrel` of Proof/A64HSimRel.v.  The machine steps are
   the selection lemmas of Proof/A64Sel.v and the print theorem of Proof/A64Print.v, as in Proof/A64SimStmt.v; what is
   added is that the heap and the allocator registers X0 = HEAP, X1 = FREE are untouched and every live location of every
   other variable is preserved (x86-64: Proof/X86HSimStmt.v).

   PrintI64: on AArch64 HEAP = X0 and FREE = X1 are caller-saved registers that the called print routine clobbers;
   `a_print` saves and restores them (`caller_save_registers_info` always lists registers 0 and 1) and
   `a64_print_ok` concludes `rget s' HEAP = rget s HEAP`, `rget s' FREE = rget s FREE`, `heap s' = heap s`. *)
From Coq Require Import List ZArith NArith String Bool Lia FMapPositive.
From SCC Require Import Base.Sexp Lang.AxSyn Sem.AxSem Sem.AxHeap Model.ParMoves Model.Backend Model.A64 Sem.A64Sem
     Model.Linearize Model.LinCheck Generated.Constants Proof.LinBasics
     Proof.A64State Proof.A64ImmHw Proof.A64Imm Proof.A64Sel Proof.A64PM Proof.A64Exec
     Proof.A64MemSubst Proof.SubstGraph Proof.SubstBackends Proof.A64Subst Proof.A64Wf Proof.A64Print
     Proof.A64SimRel Proof.A64SimStmt Proof.A64Mem Proof.HRep Proof.A64HSimRel.
From SCC Require Model.Heap Proof.X86HSimStmt.
Import ListNotations.
Open Scope Z_scope.
Open Scope list_scope.

Notation attach_nth := X86HSimStmt.attach_nth.
Notation attach_erase := X86HSimStmt.attach_erase.
Notation ptrs_nth := X86HSimStmt.ptrs_nth.
Notation nth_error_erase := X86HSimStmt.nth_error_erase.

Section HSim.
Variable im : image.
Variable types : list tydecl.
Variable CLO : Z -> ident -> list clause -> ctx -> Prop.
Local Notation hrel := (hrel types CLO).

Theorem hsim_literal c he hs s sp n v tv :
  hrel c he hs s sp -> NoDup (ids (c ++ [mkb v Ext I64])) -> in64 n ->
  avt (c ++ [mkb v Ext I64]) (idn v) = Ok tv ->
  exists s', run_straight im (a_load_immediate tv n) s = MOk s' /\
             hrel (c ++ [mkb v Ext I64]) (he ++ [(v, VInt n, 0)]) hs s' sp /\ frame_eq s s' sp.
Proof.
  intros R ND IN TV. apply (vt_fresh c v tv ND) in TV.
  destruct (atpos_ok _ _ _ TV) as ((O & _) & _).
  destruct (a64_load_immediate_ok im s sp tv n (hr_frame R) O IN) as (s' & E & V & P).
  exists s'. split; [exact E|]. split; [eapply hrel_push; eauto using preserved_weaken|].
  eapply run_straight_local; [|exact (hr_frame R)|exact E]. apply local_load_immediate, loc_ok_lok, O.
Qed.

Lemma hop_temps c he hs s sp a b v x y tv ta tb :
  hrel c he hs s sp -> NoDup (ids (c ++ [mkb v Ext I64])) ->
  lookup_int (erase_env he) a = Some x -> lookup_int (erase_env he) b = Some y ->
  avt (c ++ [mkb v Ext I64]) (idn v) = Ok tv ->
  avt (c ++ [mkb v Ext I64]) (idn a) = Ok ta -> avt (c ++ [mkb v Ext I64]) (idn b) = Ok tb ->
  atpos Snd (List.length c) = Ok tv /\ rem_operand_ok tv /\ rem_operand_ok ta /\ rem_operand_ok tb /\
  ta <> AR TEMPORARY_TEMP /\ lget s sp ta = Some x /\ lget s sp tb = Some y /\ in64 x /\ in64 y.
Proof.
  intros R ND LA LB TV TA TB. apply (vt_fresh c v tv ND) in TV.
  destruct (hrel_lookup types CLO c he hs s sp a x R LA) as (i & bi & ti & Hi & Ei & Ti & Vi & Ii).
  destruct (hrel_lookup types CLO c he hs s sp b y R LB) as (j & bj & tj & Hj & Ej & Tj & Vj & Ij).
  rewrite <- Ei, (vt_of_nth c _ i bi ND Hi), Ti in TA. inversion TA; subst ti.
  rewrite <- Ej, (vt_of_nth c _ j bj ND Hj), Tj in TB. inversion TB; subst tj.
  destruct (atpos_ok _ _ _ TV) as (O0 & _). destruct (atpos_ok _ _ _ Ti) as (O1 & _). destruct (atpos_ok _ _ _ Tj) as (O2 & _).
  repeat (split; [assumption|]). split; [|auto].
  destruct (atpos_shape _ _ _ Ti) as [(_ & ->)|(_ & q & -> & _)]; [|discriminate].
  change TEMPORARY_TEMP with (X 10). cbn [tnum_n]. intros E. assert (Q : (2 * N.of_nat i + 1 + 4 = 10)%N) by congruence. lia.
Qed.

Theorem hsim_op c he hs s sp a o b v x y z tv ta tb :
  hrel c he hs s sp -> NoDup (ids (c ++ [mkb v Ext I64])) ->
  lookup_int (erase_env he) a = Some x -> lookup_int (erase_env he) b = Some y -> eval_op o x y = OpVal z ->
  avt (c ++ [mkb v Ext I64]) (idn v) = Ok tv ->
  avt (c ++ [mkb v Ext I64]) (idn a) = Ok ta -> avt (c ++ [mkb v Ext I64]) (idn b) = Ok tb ->
  exists s', run_straight im (a_arith o tv ta tb) s = MOk s' /\
             hrel (c ++ [mkb v Ext I64]) (he ++ [(v, VInt z, 0)]) hs s' sp /\ frame_eq s s' sp.
Proof.
  intros R ND LA LB EV TV TA TB.
  destruct (hop_temps c he hs s sp a b v x y tv ta tb R ND LA LB TV TA TB) as (TV' & O0 & O1 & O2 & _ & VA & VB & IA & IB).
  destruct (a64_arith_ok im o s sp tv ta tb x y z (hr_frame R) O0 O1 O2 VA VB IA EV) as (s' & E & V & P).
  exists s'. split; [exact E|]. split; [eapply hrel_push; eauto using in64_eval_op|].
  eapply run_straight_local; [|exact (hr_frame R)|exact E]. apply local_a_arith, loc_ok_lok, O0.
Qed.

(* the undefined cases of div and rem: the code runs into the SDIV that reports them *)
Theorem hsim_op_undef c he hs s sp a o b v x y w tv ta tb :
  hrel c he hs s sp -> NoDup (ids (c ++ [mkb v Ext I64])) ->
  lookup_int (erase_env he) a = Some x -> lookup_int (erase_env he) b = Some y -> eval_op o x y = OpUndef w ->
  avt (c ++ [mkb v Ext I64]) (idn v) = Ok tv ->
  avt (c ++ [mkb v Ext I64]) (idn a) = Ok ta -> avt (c ++ [mkb v Ext I64]) (idn b) = Ok tb ->
  exists s', exec_undef im (a_arith o tv ta tb) s = Some (w, s') /\ out s' = out s.
Proof.
  intros R ND LA LB EV TV TA TB.
  destruct (hop_temps c he hs s sp a b v x y tv ta tb R ND LA LB TV TA TB) as (TV' & O0 & (O1 & _) & (O2 & _) & NX & VA & VB & IA & IB).
  assert (F : frame_ok s sp) by exact (hr_frame R).
  destruct o; cbn [eval_op a_arith] in *; try discriminate.
  - apply (a_op_undef im r_div s sp tv ta tb x y w); auto. apply r_div_undef. unfold undef_of.
    destruct (y =? 0); [exact EV|]. destruct ((x =? min_int) && (y =? -1)); [exact EV|discriminate].
  - apply (a_op_undef im r_rem s sp tv ta tb x y w); auto. apply r_rem_undef. unfold undef_of.
    destruct (y =? 0); [exact EV|]. destruct ((x =? min_int) && (y =? -1)); [exact EV|discriminate].
Qed.

Lemma hrel_operand c he hs s sp a x ta :
  hrel c he hs s sp -> lookup_int (erase_env he) a = Some x -> avt c (idn a) = Ok ta ->
  exists i bi, nth_error c i = Some bi /\ idn (bvar bi) = idn a /\ atpos Snd i = Ok ta /\ lget s sp ta = Some x /\ in64 x.
Proof.
  intros R LA TA. destruct (hrel_lookup types CLO c he hs s sp a x R LA) as (i & bi & ti & Hi & Ei & Ti & Vi & Ii).
  rewrite <- Ei, (vt_of_nth0 c i bi (hr_nodup R) Hi), Ti in TA. inversion TA; subst ti. eauto 8.
Qed.

(* IfC: the comparison (CMP sets NZCV), then the conditional branch *)
Lemma flags_preserving_hrel c he hs s s' sp : hrel c he hs s sp -> flags_preserving s s' sp -> hrel c he hs s' sp.
Proof.
  intros R (K & HE & _ & F'). destruct free_operand as (A & B & C & _).
  apply (hrel_keep types CLO c he hs s s' sp R F' HE).
  - apply (K (AR HEAP)); [exact I|discriminate|discriminate].
  - apply (K (AR FREE)); auto.
  - intros k b0 n t _ _ Hk. destruct (atpos_ok _ _ _ Hk) as (((A' & B' & C') & _) & _). now apply K.
Qed.

Theorem hsim_compare2 c he hs s sp a b x y ta tb :
  hrel c he hs s sp -> lookup_int (erase_env he) a = Some x -> lookup_int (erase_env he) b = Some y ->
  avt c (idn a) = Ok ta -> avt c (idn b) = Ok tb ->
  exists s', run_straight im (compare ta tb) s = MOk s' /\ flags s' = Some (cmp_flags x y) /\ in64 x /\ in64 y /\
             hrel c he hs s' sp /\ frame_eq s s' sp.
Proof.
  intros R LA LB TA TB.
  destruct (hrel_operand c he hs s sp a x ta R LA TA) as (i & bi & Hi & Ei & Ti & Vi & Ii).
  destruct (hrel_operand c he hs s sp b y tb R LB TB) as (j & bj & Hj & Ej & Tj & Vj & Ij).
  destruct (atpos_ok _ _ _ Ti) as ((O1 & _) & _). destruct (atpos_ok _ _ _ Tj) as ((O2 & _) & _).
  destruct (a64_compare_ok im s sp ta tb x y (hr_frame R) O1 O2 Vi Vj) as (s' & E & FL & FP).
  exists s'. split; [exact E|]. split; [exact FL|]. split; [exact Ii|]. split; [exact Ij|].
  split; [eapply flags_preserving_hrel; eauto|].
  eapply run_straight_local; [|exact (hr_frame R)|exact E]. apply local_compare.
Qed.
Theorem hsim_compare1 c he hs s sp a x ta :
  hrel c he hs s sp -> lookup_int (erase_env he) a = Some x -> avt c (idn a) = Ok ta ->
  exists s', run_straight im (compare_immediate ta 0) s = MOk s' /\ flags s' = Some (cmp_flags x 0) /\ in64 x /\
             hrel c he hs s' sp /\ frame_eq s s' sp.
Proof.
  intros R LA TA.
  destruct (hrel_operand c he hs s sp a x ta R LA TA) as (i & bi & Hi & Ei & Ti & Vi & Ii).
  destruct (atpos_ok _ _ _ Ti) as ((O1 & _) & _).
  destruct (a64_compare_zero_ok im s sp ta x (hr_frame R) O1 Vi) as (s' & E & FL & FP).
  exists s'. split; [exact E|]. split; [exact FL|]. split; [exact Ii|].
  split; [eapply flags_preserving_hrel; eauto|].
  eapply run_straight_local; [|exact (hr_frame R)|exact E]. apply local_compare_immediate.
Qed.

(* the whole conditional inside an image: control reaches the first instruction of the branch the
   AxCut machine takes (the else branch follows the B.cond, the then branch follows the label) *)
Theorem hsim_ifc c he hs s sp so a b x y thenc elsec lc code lc' pc :
  hrel c he hs s sp -> lookup_int (erase_env he) a = Some x ->
  match b with Some b => lookup_int (erase_env he) b | None => Some 0 end = Some y ->
  acs types (IfC so a b thenc elsec) c lc = Ok (code, lc') ->
  code_at im pc code -> labels_at_nh im pc code ->
  exists c1 c2 lc2 c3 s',
    code = c1 ++ c2 ++ [LAB (iflabel lc)] ++ c3 /\
    acs types elsec c (lc + 1)%N = Ok (c2, lc2) /\ acs types thenc c lc2 = Ok (c3, lc') /\
    exec_to im pc s (if eval_cmp so x y then padd pc (List.length c1 + List.length c2 + 1)
                     else padd pc (List.length c1)) s' /\
    hrel c he hs s' sp /\ frame_eq s s' sp.
Proof.
  intros R LA LB CS CA LBL.
  destruct (cs_ifc _ _ _ _ _ _ _ _ _ _ CS) as (ta & c1 & c2 & lc2 & c3 & TA & C1 & EL & TH & ->).
  exists c1, c2, lc2, c3.
  assert (PRE : exists pre s1, c1 = pre ++ [bcc so (iflabel lc)] /\ run_straight im pre s = MOk s1 /\
                               flags s1 = Some (cmp_flags x y) /\ in64 x /\ in64 y /\ hrel c he hs s1 sp /\ frame_eq s s1 sp).
  { destruct b as [b|].
    - destruct C1 as (tb & TB & ->).
      destruct (hsim_compare2 c he hs s sp a b x y ta tb R LA LB TA TB) as (s1 & E & FL & IX & IY & R1 & FE). eauto 10.
    - inversion LB; subst y. destruct (hsim_compare1 c he hs s sp a x ta R LA TA) as (s1 & E & FL & IX & R1 & FE).
      exists (compare_immediate ta 0), s1. repeat (split; [first [reflexivity|assumption|exact in64_0]|]). exact FE. }
  destruct PRE as (pre & s1 & -> & E & FL & IX & IY & R1 & FE).
  pose proof CA as CA'. rewrite <- app_assoc in CA'. apply code_at_app in CA' as [CApre CArest].
  pose proof (run_straight_exec_to im pre pc s s1 CApre E) as X1.
  assert (CJ : PM.find (padd pc (List.length pre)) (code im) = Some (bcc so (iflabel lc))).
  { cbn [app] in CArest. apply code_at_cons in CArest as [C0 _]. exact C0. }
  assert (LL : nth_error ((pre ++ [bcc so (iflabel lc)]) ++ c2 ++ [LAB (iflabel lc)] ++ c3)
                         (List.length (pre ++ [bcc so (iflabel lc)]) + List.length c2) = Some (LAB (iflabel lc))).
  { rewrite nth_error_app2 by lia. rewrite nth_error_app2 by lia.
    replace (_ + _ - _ - _)%nat with O by lia. reflexivity. }
  exists s1. split; [reflexivity|]. split; [exact EL|]. split; [exact TH|]. split; [|split; [exact R1|exact FE]].
  pose proof (a64_bcc_step im so (iflabel lc) s1 x y FL IX IY) as ST.
  rewrite app_length. cbn [List.length].
  destruct (eval_cmp so x y).
  - rewrite (goto_label_at im pc _ _ _ s1 LBL LL eq_refl) in ST.
    eapply exec_to_trans; [exact X1|].
    eapply exec_jump; [exact CJ|exact ST|].
    eapply exec_next; [apply (code_at_nth im pc _ _ _ CA LL)|reflexivity|].
    rewrite <- padd_succ. rewrite app_length. cbn [List.length].
    replace (S (List.length pre + 1 + List.length c2)) with (List.length pre + 1 + List.length c2 + 1)%nat by lia.
    apply exec_refl.
  - eapply exec_to_trans; [exact X1|].
    eapply exec_next; [exact CJ|exact ST|]. rewrite <- padd_succ.
    replace (S (List.length pre)) with (List.length pre + 1)%nat by lia. apply exec_refl.
Qed.

(* Exit: the result reaches X0, then control goes to `cleanup` *)
Theorem hsim_exit_mov c he hs s sp v z tv :
  hrel c he hs s sp -> lookup_int (erase_env he) v = Some z -> avt c (idn v) = Ok tv ->
  exists s', run_straight im (a_mov (AR RETURN1) tv) s = MOk s' /\ rget s' RETURN1 = Some z /\
             frame_ok s' sp /\ frame_eq s s' sp.
Proof.
  intros R LV TV.
  destruct (hrel_operand c he hs s sp v z tv R LV TV) as (i & bi & Hi & Ei & Ti & Vi & Ii).
  destruct (atpos_ok _ _ _ Ti) as ((O1 & _) & _).
  destruct (a64_mov_ok im s sp (AR RETURN1) tv (hr_frame R) return1_operand O1) as (s' & E & V & P).
  exists s'. split; [exact E|]. split; [cbn [lget] in V; congruence|].
  eapply run_straight_local; [|exact (hr_frame R)|exact E]. apply local_a_mov. reflexivity.
Qed.

(* in ANY context (integers and heap objects in any positions, in particular a 13th variable in the link
   register): Proof/A64Print.v says that every temporary of every variable, HEAP = X0, FREE = X1 (both saved
   and restored around the call), SP, the heap and the stack at and above SP survive *)
Theorem hsim_print c he hs s sp nl v z tv :
  hrel c he hs s sp -> lookup_int (erase_env he) v = Some z -> avt c (idn v) = Ok tv ->
  exists s', run_straight im (a_print nl tv c) s = MOk s' /\
    hrel c he hs s' sp /\ out s' = (nl, z) :: out s /\ above_eq s s' sp.
Proof.
  intros R LV TV.
  destruct (hrel_operand c he hs s sp v z tv R LV TV) as (i & bi & Hi & Ei & Ti & Vi & Ii).
  destruct (a64_print_ok im nl tv c s sp z (hr_frame R) (hr_room R)) as (s' & E & O & H & F' & HP & FR & K & AB).
  { eapply a64_print_src_ok_variable; eauto. }
  { exact Vi. }
  exists s'. split; [exact E|]. split; [|split; [exact O|split; [exact H|exact AB]]].
  apply (hrel_keep types CLO c he hs s s' sp R F' H HP FR).
  intros j b n t Hj AL Tj. apply (K j b n t Hj AL Tj).
Qed.
End HSim.

Lemma hbind_rel types CLO c he hs st sp (c' : ctx) e' :
  hrel types CLO c he hs st sp -> NoDup (ids c') -> sig_match c c' = true ->
  bind (vars c') (map snd (erase_env he)) = Some e' -> hrel types CLO c' (attach e' (ptrs he)) hs st sp.
Proof.
  intros R ND SM BD. pose proof (hrel_length R) as LE. destruct R as [F Ro Hr Fr HQ Ids ND0 Vals]. split; auto.
  - rewrite attach_erase. unfold env_ids. rewrite <- (map_map fst idn), (bind_ids _ _ _ BD). unfold vars, ids. now rewrite map_map.
  - intros i x v q Hi. destruct (attach_nth _ _ _ _ _ _ Hi) as [He' Eq].
    destruct (bind_nth _ _ _ _ _ _ BD He') as (_ & Hv).
    rewrite nth_error_map in Hv. destruct (nth_error (erase_env he) i) as [[y w]|] eqn:He; [|discriminate]. cbn in Hv. inversion Hv; subst w.
    destruct (nth_error_erase he i y v He) as (q0 & Hh).
    destruct (Vals i y v q0 Hh) as (b & Hb & V). destruct (sig_match_nth c c' i b SM Hb) as (b' & Hb' & K & T).
    exists b'. split; [exact Hb'|]. rewrite Eq, (ptrs_nth he i y v q0 Hh).
    apply (hvrep_kind types CLO st sp i b b' v q0); [congruence|congruence|exact V].
Qed.
