(* C08, heap statements, shared definitions (the RISC-V counterpart of Proof/X86HeapDefs.v; the definitions are
   convertible with the x86-64 ones because the ISA models place the heap at the same addresses, so the congruence
   and invariance lemmas are those of Proof/X86HeapDefs.v, X86HeapCongr.v, X86MemStoreChain.v).

     pad3 / heq      agreement of an abstract state `a` (in practice `abs_heap F s`, whose blocks always
                     have three pointer slots) with the abstract heap `hs` of the instrumented machine
                     Sem/AxHeap.v UP TO ZERO PADDING (a block that was never written has `ps = []` in hs
                     and [0;0;0] in abs_heap);
     P3              every block of hs has at most three pointer slots;
     acq_ok          what `acquire_block` needs of the allocator state, on the abstract state. *)
From Coq Require Import List ZArith NArith String Bool Lia.
From SCC Require Import Sem.AxSem Sem.AxHeap Sem.RVSem Proof.RVSel Proof.RVHeapAbs.
From SCC Require Model.Heap Proof.HeapMore Proof.HeapRepAlloc Proof.HeapRepLoad Proof.X86HeapDefs Proof.X86MemStoreChain Proof.X86HeapCongr.
Import ListNotations.
Open Scope list_scope.
Open Scope Z_scope.

Definition LIMIT : Z := HEAP_BASE + HEAP_SIZE.

Definition pad3 (l : list Z) : list Z := [nth 0 l 0; nth 1 l 0; nth 2 l 0].

Definition heq (a hs : Heap.st) : Prop :=
  Heap.heap a = Heap.heap hs /\ Heap.free a = Heap.free hs /\ Heap.frontier a = Heap.frontier hs /\
  forall x, is_blk x ->
    Heap.hdr (Heap.m a x) = Heap.hdr (Heap.m hs x) /\ Heap.ps (Heap.m a x) = pad3 (Heap.ps (Heap.m hs x)).

Definition P3 (hs : Heap.st) : Prop := forall x, (List.length (Heap.ps (Heap.m hs x)) <= 3)%nat.

Lemma pad3_nil : pad3 [] = [0; 0; 0]. Proof. exact X86HeapDefs.pad3_nil. Qed.
Lemma pad3_nth l i : nth i (pad3 l) 0 = match i with O | S O | S (S O) => nth i l 0 | _ => 0 end.
Proof. apply X86HeapDefs.pad3_nth. Qed.

Notation heq_eqB := X86HeapDefs.heq_eqB.
Lemma heq_abs_ps F s hs x : heq (abs_heap F s) hs -> is_blk x ->
  pad3 (Heap.ps (Heap.m hs x)) = [hword s (x + 16); hword s (x + 32); hword s (x + 48)] /\ Heap.hdr (Heap.m hs x) = hword s x.
Proof. intros (_ & _ & _ & H) Hx. destruct (H x Hx) as [A B]. split; [now rewrite <- B|now rewrite <- A]. Qed.

Definition meq (ma mh : Heap.mem) : Prop :=
  forall x, is_blk x -> Heap.hdr (ma x) = Heap.hdr (mh x) /\ Heap.ps (ma x) = pad3 (Heap.ps (mh x)).

Lemma heq_meq a hs : heq a hs -> meq (Heap.m a) (Heap.m hs).
Proof. apply X86HeapCongr.heq_meq. Qed.

Definition rc_opnd_ok (o : Heap.op) : Prop :=
  match o with Heap.OShare p _ | Heap.OErase p => p = 0 \/ is_blk p | _ => False end.
Lemma heq_rc_ops : forall ops a hs, heq a hs -> Forall rc_opnd_ok ops -> heq (hrun ops a) (hrun ops hs).
Proof. apply X86HeapCongr.heq_rc_ops. Qed.
Lemma step_eqB o a b : st_eqB a b -> rc_opnd_ok o -> st_eqB (Heap.step a o) (Heap.step b o).
Proof.
  intros E Ho. destruct o; cbn [rc_opnd_ok] in Ho; try contradiction; cbn [Heap.step].
  - now apply share_st_eqB.
  - now apply erase_st_eqB.
Qed.
Lemma hrun_eqB : forall ops a b, st_eqB a b -> Forall rc_opnd_ok ops -> st_eqB (hrun ops a) (hrun ops b).
Proof.
  unfold hrun. induction ops as [|o ops IH]; intros a b E Hops; cbn [fold_left]; [exact E|].
  inversion Hops as [|? ? Ho Hops']; subst. apply IH; [|exact Hops']. now apply step_eqB.
Qed.

(* P3 is an invariant of the instrumented machine *)
Definition machine_op (o : Heap.op) : Prop :=
  match o with Heap.OShare _ _ | Heap.OErase _ | Heap.OAllocObj _ | Heap.OLoadObj _ _ => True | _ => False end.
Notation store_other_step := X86MemStoreChain.store_other_step.
Notation P3_alloc_object := X86HeapCongr.P3_alloc_object.
Lemma P3_hrun : forall ops hs, P3 hs -> Forall machine_op ops -> P3 (hrun ops hs).
Proof. apply X86HeapCongr.P3_hrun. Qed.
Lemma P3_init base : P3 (Heap.init base).
Proof. apply X86HeapCongr.P3_init. Qed.

Definition slots_ok (l : list Z) : Prop := Forall (fun c => c = 0 \/ is_blk c) l.

Definition acq_ok (a : Heap.st) : Prop :=
  is_blk (Heap.heap a) /\ Heap.free a <> 0 /\
  (Heap.hdr (Heap.m a (Heap.heap a)) = 0 -> is_blk (Heap.free a)) /\
  (Heap.hdr (Heap.m a (Heap.heap a)) = 0 -> Heap.hdr (Heap.m a (Heap.free a)) <> 0 ->
     slots_ok (Heap.ps (Heap.m a (Heap.free a))) /\
     (forall x, is_blk x -> min_int + 3 <= Heap.hdr (Heap.m a x) <= max_int) /\
     min_int + 3 <= Heap.hdr (Heap.m a (Heap.free a)) <= max_int).

Notation alloc_fst := X86MemStoreChain.alloc_fst.
