(* C16: the theorems about the formatter round trip, assembled.
   Models: Model/Printer.v (documents, tokens), Model/Parser.v (lexer, parser), Model/FmtClass.v
   (defect class), Model/Pretty.v (layout).  Proof parts: FmtDefs.v (parser-shaped trees, token printer), FmtWf.v
   (induction over them), FmtRound.v (parser reads back the token stream), FmtGlue.v (token stream of the printed
   document), FmtSafe.v (separators), FmtLex.v (lexer over all layouts), FmtPretty.v (the computed layout is one). *)
From Coq Require Import List ZArith NArith String Ascii Bool Lia.
From SCC Require Import Base.Sexp Lang.SynUtil Lang.FunSyn Lang.SynInd Model.Printer Model.Parser Model.FmtClass
  Proof.FmtDefs Proof.FmtWf Proof.FmtRound Proof.FmtGlue Proof.FmtSafe Proof.FmtLex Proof.FmtPretty.
From SCC Require Import Model.Pretty.
Import ListNotations.
Local Open Scope string_scope.

(* The repaired printer: no guard. *)
Lemma roundtrip c p : wf_prog p = true -> parse (tokens (d_prog c p)) = Some p.
Proof. intros Hwf. rewrite tokens_print by assumption. now apply roundtrip_tokens. Qed.

Lemma idempotent c p :
  wf_prog p = true -> option_map (d_prog c) (parse (tokens (d_prog c p))) = Some (d_prog c p).
Proof. intros Hwf. now rewrite roundtrip. Qed.
Lemma idempotent_tokens c p q :
  wf_prog p = true -> parse (tokens (d_prog c p)) = Some q -> tokens (d_prog c q) = tokens (d_prog c p).
Proof. intros Hwf E. rewrite roundtrip in E by assumption. now injection E as <-. Qed.

(* ---------- regression: the printer before the repair (Printer.old_d_prog) ---------- *)
(* `if 1 == -0 { 1 } else { 2 }` came back as the zero-comparison form *)
Definition wit_cfg : pcfg := mkpcfg 80 true false 4.
Definition wit_minus_zero : fprog :=
  mkfprog [FDDef (mkfdef "main" [] FI64 (FIfC FEq (FLit 1) (Some (FLit 0)) (FLit 1) (FLit 2) None))].
Definition wit_minus_zero_after : fprog :=
  mkfprog [FDDef (mkfdef "main" [] FI64 (FIfC FEq (FLit 1) None (FLit 1) (FLit 2) None))].
Lemma wit_minus_zero_parses :     (* it is what the parser makes of the source text *)
  parse_text "def main(): i64 { if 1 == -0 { 1 } else { 2 } }" = Some wit_minus_zero.
Proof. vm_compute. reflexivity. Qed.
Lemma wit_minus_zero_changed :
  wf_prog wit_minus_zero = true /\
  parse (tokens (old_d_prog wit_cfg wit_minus_zero)) = Some wit_minus_zero_after.
Proof. split; vm_compute; reflexivity. Qed.
Lemma old_roundtrip_refuted :
  ~ (forall c p, wf_prog p = true -> parse (tokens (old_d_prog c p)) = Some p).
Proof.
  intros H. specialize (H wit_cfg wit_minus_zero (proj1 wit_minus_zero_changed)).
  rewrite (proj2 wit_minus_zero_changed) in H. discriminate.
Qed.

(* worse: the printed text of a parseable program did not parse at all: `if 0 == x + -0 {1} else {2}` *)
Definition wit_unparsable : fprog :=
  mkfprog [FDDef (mkfdef "main" [mkfb "x" FPrd FI64] FI64
     (FIfC FEq (FOp (FVar "x" None None) FSum (FLit 0)) None (FLit 1) (FLit 2) None))].
Lemma wit_unparsable_parses :
  parse_text "def main(x: i64): i64 { if 0 == x + -0 { 1 } else { 2 } }" = Some wit_unparsable.
Proof. vm_compute. reflexivity. Qed.
Lemma old_unparsable_output :
  exists c p, wf_prog p = true /\ parse (tokens (old_d_prog c p)) = None.
Proof. exists wit_cfg, wit_unparsable. split; vm_compute; reflexivity. Qed.

(* `if 0 > -0 {1} else {2}`: printed `if 0 < 0`, reparsed as Greater, printed `if 0 > 0` *)
Definition wit_flip : fprog :=
  mkfprog [FDDef (mkfdef "main" [] FI64 (FIfC FLt (FLit 0) None (FLit 1) (FLit 2) None))].
Lemma wit_flip_parses : parse_text "def main(): i64 { if 0 > -0 { 1 } else { 2 } }" = Some wit_flip.
Proof. vm_compute. reflexivity. Qed.
Lemma old_idempotent_refuted :
  ~ (forall c p q, wf_prog p = true -> parse (tokens (old_d_prog c p)) = Some q ->
                   tokens (old_d_prog c q) = tokens (old_d_prog c p)).
Proof.
  intros H.
  specialize (H wit_cfg wit_flip
                (mkfprog [FDDef (mkfdef "main" [] FI64 (FIfC FGt (FLit 0) None (FLit 1) (FLit 2) None))])).
  assert (E1 : wf_prog wit_flip = true) by (vm_compute; reflexivity).
  specialize (H E1). vm_compute in H. specialize (H eq_refl). discriminate.
Qed.

(* two more witnesses: a literal 0 as first operand of a general comparison, which exists only behind a comment
   (corpus/fun/c16_minus_zero_fst.sc), and a second operand that starts with the literal 0 *)
Definition wit_comment : fprog :=
  mkfprog [FDDef (mkfdef "main" [mkfb "x" FPrd FI64] FI64
     (FIfC FLt (FLit 0) (Some (FVar "x" None None)) (FLit 1) (FLit 2) None))].
Lemma wit_comment_parses :
  parse_text ("def main(x: i64): i64 { if 0 // zero" ++ String "010" "  < x { 1 } else { 2 } }") = Some wit_comment.
Proof. vm_compute. reflexivity. Qed.
Definition wit_snd_op : fprog :=
  mkfprog [FDDef (mkfdef "main" [mkfb "x" FPrd FI64] FI64
     (FIfC FEq (FVar "x" None None) (Some (FOp (FLit 0) FSum (FLit 1))) (FLit 1) (FLit 2) None))].
Lemma wit_snd_op_parses :
  parse_text "def main(x: i64): i64 { if x == -0 + 1 { 1 } else { 2 } }" = Some wit_snd_op.
Proof. vm_compute. reflexivity. Qed.

(* ... and what the REPAIRED printer (the model of the current code, compared with it byte for byte on
   every run, these witnesses included) writes for them; each text parses back to its program *)
Lemma witnesses_fixed :
  render 80 (d_prog wit_cfg wit_minus_zero) = ("def main(): i64 {" ++ nl ++ "    if 1 == -0 { 1 } else { 2 }" ++ nl ++ "}")%string /\
  render 80 (d_prog wit_cfg wit_unparsable) = ("def main(x: i64): i64 {" ++ nl ++ "    if 0 == x + 0 { 1 } else { 2 }" ++ nl ++ "}")%string /\
  render 80 (d_prog wit_cfg wit_flip) = ("def main(): i64 {" ++ nl ++ "    if 0 > 0 { 1 } else { 2 }" ++ nl ++ "}")%string /\
  render 80 (d_prog wit_cfg wit_comment)
    = ("def main(x: i64): i64 {" ++ nl ++ "    if 0 //" ++ nl ++ "    < x {" ++ nl ++ "        1" ++ nl ++ "    } else {" ++ nl
       ++ "        2" ++ nl ++ "    }" ++ nl ++ "}")%string /\
  render 80 (d_prog wit_cfg wit_snd_op) = ("def main(x: i64): i64 {" ++ nl ++ "    if x == -0 + 1 { 1 } else { 2 }" ++ nl ++ "}")%string /\
  parse_text (render 80 (d_prog wit_cfg wit_minus_zero)) = Some wit_minus_zero /\
  parse_text (render 80 (d_prog wit_cfg wit_unparsable)) = Some wit_unparsable /\
  parse_text (render 80 (d_prog wit_cfg wit_flip)) = Some wit_flip /\
  parse_text (render 80 (d_prog wit_cfg wit_comment)) = Some wit_comment /\
  parse_text (render 80 (d_prog wit_cfg wit_snd_op)) = Some wit_snd_op.
Proof. do 9 (split; [vm_compute; reflexivity|]). vm_compute. reflexivity. Qed.

(* ---------- the former guard and the closed form of the repaired defect class agree ---------- *)
Lemma omap_id {X} (f : X -> option X) l : (forall x, In x l -> f x = Some x) -> omap f l = Some l.
Proof.
  induction l as [|x l IH]; intros H; [reflexivity|]. cbn [omap].
  rewrite H by (now left). cbn [obind]. rewrite IH by (intros; apply H; now right). reflexivity.
Qed.
Lemma omap_t_id (f : fterm -> option fterm) l : (forall x, In x l -> f x = Some x) -> omap_t f l = Some l.
Proof.
  induction l as [|x l IH]; intros H; [reflexivity|]. cbn [omap_t].
  rewrite H by (now left). cbn [obind]. fold (omap_t f l). rewrite IH by (intros; apply H; now right). reflexivity.
Qed.
Lemma renorm_clauses_id cls :
  (forall cl, In cl cls -> match cl with FClause _ _ _ _ body => old_renorm_t body = Some body end) ->
  (fix go (l : list fclause) : option (list fclause) :=
     match l with
     | [] => Some []
     | FClause p x ns g body :: r => do b' <- old_renorm_t body; do r' <- go r; Some (FClause p x ns g b' :: r')
     end) cls = Some cls.
Proof.
  induction cls as [|[p x ns g body] cls IH]; intros H; [reflexivity|].
  rewrite (H _ (or_introl eq_refl)). cbn [obind]. rewrite IH by (intros; apply H; now right). reflexivity.
Qed.
Lemma map_ext_guarded {X Y} (p : X -> bool) (f g : X -> Y) l :
  Forall (fun x => p x = true -> f x = g x) l -> forallb p l = true -> map f l = map g l.
Proof. intros H Hp. apply map_ext_in. exact (guarded_all p _ l H Hp). Qed.
Lemma zsafe_renorm_t : forall t, zsafe t = true -> old_renorm_t t = Some t.
Proof.
  apply (fterm_mutind (fun t => zsafe t = true -> old_renorm_t t = Some t)
           (fun cl => zsafe_clause cl = true ->
                      match cl with FClause _ _ _ _ body => old_renorm_t body = Some body end));
    try reflexivity; cbn [zsafe zsafe_clause old_renorm_t].
  - intros a o b Ha Hb Hz. apply andb_prop in Hz. destruct Hz. rewrite Ha, Hb by assumption. reflexivity.
  - intros s a b th el ty Ha Hb Hth Hel Hz.
    rewrite !andb_true_iff in Hz. destruct Hz as ((((Hza & Hea) & Hzb) & Hzth) & Hzel).
    apply negb_true_iff in Hea. rewrite Ha, Hth, Hel by assumption. cbn [obind].
    assert (is_lit0 a = false) as Hl by (destruct a as [| [] | | | | | | | | | | | | |]; try reflexivity; discriminate).
    rewrite Hl, Hea. destruct b as [b|]; [|reflexivity].
    apply andb_prop in Hzb. destruct Hzb as [Hzb Hsb]. apply negb_true_iff in Hsb.
    rewrite (Hb b eq_refl Hzb). cbn [obind].
    assert (is_lit0 b = false) as Hlb by (destruct b as [| [] | | | | | | | | | | | | |]; try reflexivity; discriminate).
    rewrite Hlb, Hsb. reflexivity.
  - intros nl a next ty Ha Hn Hz. apply andb_prop in Hz. destruct Hz. rewrite Ha, Hn by assumption. reflexivity.
  - intros v vty bound body ty Hb Ht Hz. apply andb_prop in Hz. destruct Hz. rewrite Hb, Ht by assumption. reflexivity.
  - intros f args ret Hargs Hz. rewrite omap_t_id by (now apply (guarded_all zsafe)). reflexivity.
  - intros x args ty Hargs Hz. rewrite omap_t_id by (now apply (guarded_all zsafe)). reflexivity.
  - intros s x targs args ty Hs Hargs Hz. apply andb_prop in Hz. destruct Hz. rewrite Hs by assumption. cbn [obind].
    rewrite omap_t_id by (now apply (guarded_all zsafe)). reflexivity.
  - intros s targs cls ty Hs Hcls Hz. apply andb_prop in Hz. destruct Hz. rewrite Hs by assumption. cbn [obind].
    rewrite renorm_clauses_id by (now apply (guarded_all zsafe_clause)). reflexivity.
  - intros cls ty Hcls Hz. rewrite renorm_clauses_id by (now apply (guarded_all zsafe_clause)). reflexivity.
  - intros l t ty Ht Hz. rewrite Ht by assumption. reflexivity.
  - intros l t ty Ht Hz. rewrite Ht by assumption. reflexivity.
  - intros a ty Ha Hz. rewrite Ha by assumption. reflexivity.
  - intros t Ht Hz. rewrite Ht by assumption. reflexivity.
  - intros p x ns g body Hb. exact Hb.
Qed.
Lemma zsafe_renorm p : zsafe_prog p = true -> old_renorm p = Some p.
Proof.
  intros Hz. destruct p as [ds]. unfold zsafe_prog, old_renorm in *. cbn [fpdecls] in *.
  rewrite forallb_forall in Hz. rewrite omap_id; [reflexivity|].
  intros d Hd. specialize (Hz d Hd). destruct d as [d|d|d]; try reflexivity.
  unfold old_renorm_decl. cbn [zsafe_decl] in Hz. rewrite zsafe_renorm_t by auto.
  destruct d; reflexivity.
Qed.

(* ---------- layout independence and the round trip on text ---------- *)
(* every printed document separates sticky atoms by blanks and consists of lexable words .. *)
Lemma print_is_safe c p : wf_prog p = true -> safe_doc (d_prog c p) = true /\ words_ok (d_prog c p) = true.
Proof. intros H. split; [now apply safe_print | now apply words_ok_print]. Qed.
(* .. hence every layout of it - any width, any indentation, any choice at each line / line_ - has the
   token stream [tokens (d_prog c p)] *)
Lemma layout_independent c p s :
  wf_prog p = true -> renders (d_prog c p) s -> lex_string s = Some (tokens (d_prog c p)).
Proof. intros Hwf Hr. destruct (print_is_safe c p Hwf). now apply render_any_layout_tokens. Qed.
(* and parses back to p *)
Lemma roundtrip_text c p s :
  wf_prog p = true -> renders (d_prog c p) s -> parse_text s = Some p.
Proof.
  intros Hwf Hr. unfold parse_text. rewrite (layout_independent c p s Hwf Hr). cbn [obind].
  now apply roundtrip.
Qed.
(* formatting again (any layout, any configuration c2) gives the document of p again *)
Lemma idempotent_text c c2 p s :
  wf_prog p = true -> renders (d_prog c p) s ->
  option_map (d_prog c2) (parse_text s) = Some (d_prog c2 p).
Proof. intros Hwf Hr. now rewrite (roundtrip_text c p s). Qed.

(* ---------- the layout algorithm of the `pretty` crate (Model/Pretty.v) is one of these layouts ---------- *)
Lemma roundtrip_pretty c p :
  wf_prog p = true -> parse_text (render (pwidth c) (d_prog c p)) = Some p.
Proof. intros Hwf. apply (roundtrip_text c); auto. apply render_renders. Qed.
Lemma idempotent_pretty c p :
  wf_prog p = true ->
  option_map (fun q => render (pwidth c) (d_prog c q)) (parse_text (render (pwidth c) (d_prog c p)))
  = Some (render (pwidth c) (d_prog c p)).
Proof. intros Hwf. now rewrite roundtrip_pretty. Qed.

(* ---------- the repair is conservative ---------- *)
(* Outside the repaired class (zsafe: no `if` has a literal 0 next to its operator) the repaired
   printer builds the very same document as the old one - hence the same text at every width. *)
Lemma same_doc_t c : forall t, zsafe t = true -> d_term c t = old_d_term c t.
Proof.
  apply (fterm_mutind (fun t => zsafe t = true -> d_term c t = old_d_term c t)
           (fun cl => zsafe_clause cl = true -> d_clause c cl = old_d_clause c cl));
    try reflexivity.
  - intros a o b Ha Hb Hz. cbn [zsafe] in Hz. cbn [d_term old_d_term]. apply andb_prop in Hz. destruct Hz. rewrite Ha, Hb by assumption. reflexivity.
  - intros s a b th el ty Ha Hb Hth Hel Hz. cbn [zsafe] in Hz. cbn [d_term old_d_term].
    rewrite !andb_true_iff in Hz. destruct Hz as ((((Hza & Hea) & Hzb) & Hzth) & Hzel).
    apply negb_true_iff in Hea. rewrite Hea, Ha, Hth, Hel by assumption.
    destruct b as [b|]; [|reflexivity].
    apply andb_prop in Hzb. destruct Hzb as [Hzb Hsb]. apply negb_true_iff in Hsb. rewrite Hsb.
    rewrite (Hb b eq_refl Hzb). reflexivity.
  - intros nl a next ty Ha Hn Hz. cbn [zsafe] in Hz. cbn [d_term old_d_term]. apply andb_prop in Hz. destruct Hz. rewrite Ha, Hn by assumption. reflexivity.
  - intros v vty bound body ty Hb Ht Hz. cbn [zsafe] in Hz. cbn [d_term old_d_term]. apply andb_prop in Hz. destruct Hz. rewrite Hb, Ht by assumption. reflexivity.
  - intros f args ret Hargs Hz. cbn [zsafe] in Hz. cbn [d_term old_d_term]. rewrite (map_ext_guarded zsafe (d_term c) (old_d_term c) args Hargs Hz). reflexivity.
  - intros x args ty Hargs Hz. cbn [zsafe] in Hz. cbn [d_term old_d_term]. rewrite (map_ext_guarded zsafe (d_term c) (old_d_term c) args Hargs Hz). reflexivity.
  - intros s x targs args ty Hs Hargs Hz. cbn [zsafe] in Hz. cbn [d_term old_d_term]. apply andb_prop in Hz. destruct Hz as [Hzs Hza]. rewrite Hs by assumption.
    rewrite (map_ext_guarded zsafe (d_term c) (old_d_term c) args Hargs Hza). reflexivity.
  - intros s targs cls ty Hs Hcls Hz. cbn [zsafe] in Hz. cbn [d_term old_d_term]. fold (d_clause c) (old_d_clause c). apply andb_prop in Hz. destruct Hz as [Hzs Hzc]. rewrite Hs by assumption.
    rewrite (map_ext_guarded zsafe_clause (d_clause c) (old_d_clause c) cls Hcls Hzc). reflexivity.
  - intros cls ty Hcls Hz. cbn [zsafe] in Hz. cbn [d_term old_d_term]. fold (d_clause c) (old_d_clause c). rewrite (map_ext_guarded zsafe_clause (d_clause c) (old_d_clause c) cls Hcls Hz). reflexivity.
  - intros l t ty Ht Hz. cbn [zsafe] in Hz. cbn [d_term old_d_term]. rewrite Ht by assumption. reflexivity.
  - intros l t ty Ht Hz. cbn [zsafe] in Hz. cbn [d_term old_d_term]. rewrite Ht by assumption. reflexivity.
  - intros a ty Ha Hz. cbn [zsafe] in Hz. cbn [d_term old_d_term]. rewrite Ha by assumption. reflexivity.
  - intros t Ht Hz. cbn [zsafe] in Hz. cbn [d_term old_d_term]. rewrite Ht by assumption. reflexivity.
  - intros p x ns g body Hb Hz. cbn [zsafe_clause] in Hz. cbn [d_clause old_d_clause]. fold (d_term c) (old_d_term c). rewrite Hb by assumption. reflexivity.
Qed.
Lemma repair_conservative c p : zsafe_prog p = true -> d_prog c p = old_d_prog c p.
Proof.
  intros Hz. destruct p as [ds]. unfold zsafe_prog, d_prog, old_d_prog in *. cbn [fpdecls] in *.
  rewrite forallb_forall in Hz. f_equal. apply map_ext_in. intros d Hd. specialize (Hz d Hd).
  destruct d as [d|d|d]; try reflexivity. cbn [zsafe_decl] in Hz. cbn [d_decl old_d_decl]. unfold d_def, old_d_def.
  now rewrite same_doc_t.
Qed.
(* so what was proved of the old printer under the guard still stands *)
Lemma old_roundtrip_guarded c p :
  wf_prog p = true -> zsafe_prog p = true -> parse (tokens (old_d_prog c p)) = Some p.
Proof. intros Hwf Hz. rewrite <- repair_conservative by assumption. now apply roundtrip. Qed.
(* the guard is satisfiable: a zsafe program with every kind of comparison *)
Example zsafe_example :
  exists p, parse_text "def main(x: i64): i64 { if x == 0 { if 0 < x { 1 } else { x - 0 } } else { if x <= 10 { -0 } else { 0 } } }" = Some p /\
            wf_prog p = true /\ zsafe_prog p = true.
Proof. eexists. split; [vm_compute; reflexivity|]. split; vm_compute; reflexivity. Qed.
