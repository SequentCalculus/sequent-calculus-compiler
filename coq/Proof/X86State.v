(* Characterisation lemmas for the accessors of Sem/X86Sem.xstate, and a "location view":
   a temporary of the back end (register or spill slot relative to a fixed rsp) read and written as
   one kind of location.  All instruction-selection proofs go through these lemmas only. *)
From Coq Require Import List ZArith NArith String Bool Lia FMapPositive.
From SCC Require Import Base.Sexp Lang.AxSyn Sem.AxSem Model.Backend Model.X86 Sem.X86Sem Generated.Constants.
Import ListNotations.
Open Scope Z_scope.

Lemma succ_pos_inj a b : N.succ_pos a = N.succ_pos b -> a = b.
Proof. intros H. apply (f_equal Pos.pred_N) in H. now rewrite !N.pos_pred_succ in H. Qed.

Lemma rget_rset_same s r v : rget (rset s r v) r = v.
Proof. unfold rget, rset; destruct v; cbn; [apply PM.gss | apply PM.grs]. Qed.
Lemma rget_rset_other s r r' v : r <> r' -> rget (rset s r v) r' = rget s r'.
Proof.
  intros H. unfold rget, rset; destruct v; cbn; [apply PM.gso | apply PM.gro];
    intro E; apply succ_pos_inj in E; congruence.
Qed.
Lemma stack_rset s r v : stack (rset s r v) = stack s. Proof. reflexivity. Qed.
Lemma heap_rset s r v : heap (rset s r v) = heap s. Proof. reflexivity. Qed.
Lemma out_rset s r v : out (rset s r v) = out s. Proof. reflexivity. Qed.
Lemma flags_rset s r v : flags (rset s r v) = flags s. Proof. reflexivity. Qed.
Lemma rget_set_flags s f r : rget (set_flags s f) r = rget s r. Proof. reflexivity. Qed.
Lemma stack_set_flags s f : stack (set_flags s f) = stack s. Proof. reflexivity. Qed.
Lemma heap_set_flags s f : heap (set_flags s f) = heap s. Proof. reflexivity. Qed.
Lemma out_set_flags s f : out (set_flags s f) = out s. Proof. reflexivity. Qed.

Lemma key_inj a b : 0 <= a -> 0 <= b -> key a = key b -> a = b.
Proof. unfold key; intros Ha Hb H. apply (f_equal Z.pos) in H. rewrite !Z2Pos.id in H by lia. lia. Qed.

(* rsp = sp, 8-aligned, the whole spill area [sp, sp + SPILL_SPACE) inside the stack region *)
Definition sp_ok (sp : Z) : Prop := sp mod 8 = 0 /\ STACK_LIMIT <= sp /\ sp + SPILL_SPACE <= STACK_TOP.
Definition frame_ok (s : xstate) (sp : Z) : Prop := rget s 0%N = Some sp /\ sp_ok sp.
Definition slot_ok (p : N) : Prop := (p < SPILL_NUM)%N.
Definition slot_addr (sp : Z) (p : N) : Z := sp + stack_offset p.

Lemma spill_space_val : SPILL_SPACE = 8 * Z.of_N SPILL_NUM.
Proof. reflexivity. Qed.

Lemma slot_addr_facts sp p :
  sp_ok sp -> slot_ok p ->
  let a := slot_addr sp p in
  a mod 8 = 0 /\ STACK_LIMIT <= a /\ a + 8 <= STACK_TOP /\ sp <= a /\ 0 <= a.
Proof.
  intros (Hal & Hlo & Hhi) Hp. unfold slot_addr, stack_offset, slot_ok in *.
  rewrite spill_space_val in *. unfold STACK_LIMIT, STACK_TOP in *.
  assert (0 <= Z.of_N p < Z.of_N SPILL_NUM) by lia.
  repeat split; try lia.
  replace (sp + (8 * Z.of_N SPILL_NUM - 8 * (Z.of_N p + 1))) with (sp + (Z.of_N SPILL_NUM - Z.of_N p - 1) * 8) by lia.
  rewrite Z.mod_add by lia. exact Hal.
Qed.

Lemma slot_addr_inj sp p q : slot_addr sp p = slot_addr sp q -> p = q.
Proof. unfold slot_addr, stack_offset. intros H. lia. Qed.

Lemma in_stack_not_heap a : in_stack a = true -> in_heap a = false.
Proof.
  unfold in_stack, in_heap, STACK_LIMIT, STACK_TOP, HEAP_BASE, HEAP_SIZE.
  intros H. apply andb_true_iff in H as [H1 H2]. apply Z.leb_le in H1, H2.
  apply andb_false_iff. right. apply Z.leb_gt. lia.
Qed.

Definition sget (s : xstate) (sp : Z) (p : N) : option Z := PM.find (key (slot_addr sp p)) (stack s).
Definition sset (s : xstate) (sp : Z) (p : N) (v : option Z) : xstate :=
  {| regs := regs s; heap := heap s;
     stack := match v with Some z => PM.add (key (slot_addr sp p)) z (stack s) | None => PM.remove (key (slot_addr sp p)) (stack s) end;
     flags := flags s; out := out s; hw := hw s |}.

Lemma mload_slot s sp p : frame_ok s sp -> slot_ok p -> mload s (slot_addr sp p) = MOk (sget s sp p).
Proof.
  intros F P. destruct (slot_addr_facts sp p (proj2 F) P) as (A & L & H & _ & _).
  unfold mload, aligned. rewrite A. cbn [Z.eqb negb].
  assert (in_stack (slot_addr sp p) = true) as IS.
  { unfold in_stack. apply andb_true_iff; split; apply Z.leb_le; lia. }
  rewrite (in_stack_not_heap _ IS), IS. reflexivity.
Qed.
Lemma mstore_slot s sp p v : frame_ok s sp -> slot_ok p -> mstore s (slot_addr sp p) v = MOk (sset s sp p v).
Proof.
  intros F P. destruct (slot_addr_facts sp p (proj2 F) P) as (A & L & H & _ & _).
  unfold mstore, aligned. rewrite A. cbn [Z.eqb negb].
  assert (in_stack (slot_addr sp p) = true) as IS.
  { unfold in_stack. apply andb_true_iff; split; apply Z.leb_le; lia. }
  rewrite (in_stack_not_heap _ IS), IS. reflexivity.
Qed.

Lemma sget_sset_same s sp p v : sget (sset s sp p v) sp p = v.
Proof. unfold sget, sset; destruct v; cbn; [apply PM.gss | apply PM.grs]. Qed.
Lemma sget_sset_other s sp p q v :
  sp_ok sp -> slot_ok p -> slot_ok q -> p <> q -> sget (sset s sp p v) sp q = sget s sp q.
Proof.
  intros F P Q H. destruct (slot_addr_facts sp p F P) as (_ & _ & _ & _ & Ap).
  destruct (slot_addr_facts sp q F Q) as (_ & _ & _ & _ & Aq).
  unfold sget, sset; destruct v; cbn; [apply PM.gso | apply PM.gro];
    intro E; apply key_inj in E; auto; apply slot_addr_inj in E; congruence.
Qed.
Lemma rget_sset s sp p v r : rget (sset s sp p v) r = rget s r. Proof. reflexivity. Qed.
Lemma sget_rset s sp r v p : sget (rset s r v) sp p = sget s sp p. Proof. reflexivity. Qed.
Lemma sget_set_flags s sp f p : sget (set_flags s f) sp p = sget s sp p. Proof. reflexivity. Qed.
Lemma heap_sset s sp p v : heap (sset s sp p v) = heap s. Proof. reflexivity. Qed.
Lemma out_sset s sp p v : out (sset s sp p v) = out s. Proof. reflexivity. Qed.
Lemma flags_sset s sp p v : flags (sset s sp p v) = flags s. Proof. reflexivity. Qed.

Lemma frame_ok_rset s sp r v : r <> 0%N -> frame_ok s sp -> frame_ok (rset s r v) sp.
Proof. intros H (A & B). split; [rewrite rget_rset_other; auto | exact B]. Qed.
Lemma frame_ok_sset s sp p v : frame_ok s sp -> frame_ok (sset s sp p v) sp.
Proof. intros (A & B). split; [exact A | exact B]. Qed.
Lemma frame_ok_set_flags s sp f : frame_ok s sp -> frame_ok (set_flags s f) sp.
Proof. intros (A & B). split; [exact A | exact B]. Qed.

Definition lget (s : xstate) (sp : Z) (t : xtemp) : option Z :=
  match t with XR r => rget s r | XS p => sget s sp p end.
Definition lset (s : xstate) (sp : Z) (t : xtemp) (v : option Z) : xstate :=
  match t with XR r => rset s r v | XS p => sset s sp p v end.
(* a location the generated code may name as a variable temporary or scratch: not rsp *)
Definition loc_ok (t : xtemp) : Prop :=
  match t with XR r => r <> 0%N | XS p => slot_ok p end.

Lemma lget_lset_same s sp t v : lget (lset s sp t v) sp t = v.
Proof. destruct t; cbn; [apply rget_rset_same | apply sget_sset_same]. Qed.
Lemma lget_lset_other s sp t u v :
  sp_ok sp -> loc_ok t -> loc_ok u -> t <> u -> lget (lset s sp t v) sp u = lget s sp u.
Proof.
  intros F T U H. destruct t as [r|p], u as [r'|q]; cbn in *.
  - apply rget_rset_other; congruence.
  - apply sget_rset.
  - apply rget_sset.
  - apply sget_sset_other; auto; congruence.
Qed.
Lemma lget_rset_other s sp r v l : l <> XR r -> lget (rset s r v) sp l = lget s sp l.
Proof. destruct l; cbn [lget]; intros H; [apply rget_rset_other; congruence|apply sget_rset]. Qed.
Lemma frame_ok_lset s sp t v : loc_ok t -> frame_ok s sp -> frame_ok (lset s sp t v) sp.
Proof. destruct t; cbn; intros; [apply frame_ok_rset | apply frame_ok_sset]; auto. Qed.
Lemma heap_lset s sp t v : heap (lset s sp t v) = heap s. Proof. destruct t; reflexivity. Qed.
Lemma out_lset s sp t v : out (lset s sp t v) = out s. Proof. destruct t; reflexivity. Qed.
Lemma lget_set_flags s sp f t : lget (set_flags s f) sp t = lget s sp t. Proof. destruct t; reflexivity. Qed.

Fixpoint exec_straight (im : image) (cs : list xcode) (s : xstate) : option xstate :=
  match cs with
  | [] => Some s
  | c :: r => match step im c s with Next s' => exec_straight im r s' | _ => None end
  end.
Lemma exec_straight_app im a b s :
  exec_straight im (a ++ b) s = match exec_straight im a s with Some s' => exec_straight im b s' | None => None end.
Proof. revert s; induction a as [|c a IH]; intros s; cbn; [reflexivity|]. destruct (step im c s); auto. Qed.
