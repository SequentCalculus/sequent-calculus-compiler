(* Refinement of the code of `x_store` (memory.rs store / store_fields / store_values / store_value /
   store_field / store_zeros, Let and Create of AxCut) on the x86-64 ISA semantics to the abstract
   allocator of Model/Heap.v:
     x86_store_values_ok      the straight-line stores into the reserved block (3 fields, or 2 fields
                              of a continuation block whose link slot is left alone);
     x86_store_one_block_ok   `x_store` of 1..3 variables = `Heap.alloc (pad 3 slots)`;
     x86_store_empty_ok       `x_store []` puts 0 into the first temporary of the next position.
   Variables live in registers or in spill slots; `tpos k` is the temporary of position k.
   The values of the temporaries are given by a valuation `val : N -> Z` of positions (`vals_ok`). *)
From Coq Require Import List ZArith NArith String Bool Lia FMapPositive.
From SCC Require Import Base.Sexp Lang.AxSyn Sem.AxSem Model.Backend Model.X86 Sem.X86Sem Generated.Constants
  Proof.X86State Proof.X86Sel Proof.X86Mem Proof.X86MemFrame Proof.X86StackFrame.
From SCC Require Model.Heap.
Import ListNotations.
Open Scope list_scope.
Open Scope Z_scope.

Definition vals_ok (s : xstate) (sp : Z) (val : N -> Z) (E : nat) (bs : list binding) : Prop :=
  forall i b, nth_error bs i = Some b ->
    lget s sp (tpos (2 * N.of_nat (E + i) + 1)) = Some (val (2 * N.of_nat (E + i) + 1)%N) /\
    (bchi b <> Ext -> lget s sp (tpos (2 * N.of_nat (E + i))) = Some (val (2 * N.of_nat (E + i))%N)).

(* pointer slot / integer slot of the variable at position pos *)
Definition fst_slot (val : N -> Z) (pos : nat) (b : binding) : Z :=
  match bchi b with Ext => 0 | _ => val (2 * N.of_nat pos)%N end.
Definition snd_slot (val : N -> Z) (pos : nat) : Z := val (2 * N.of_nat pos + 1)%N.
Fixpoint fsts (val : N -> Z) (E : nat) (bs : list binding) : list Z :=
  match bs with [] => [] | b :: r => fst_slot val E b :: fsts val (S E) r end.

(* the words w after storing bs (left to right, variable i at position E + i) right-aligned into
   the ff fields of block rv, starting from the words w0 *)
Definition stored (w w0 : Z -> Z) (val : N -> Z) (E : nat) (bs : list binding) (rv : Z) (ff : N) : Prop :=
  (forall i b, nth_error bs i = Some b ->
     w (rv + field_offset Snd (ff - N.of_nat (List.length bs) + N.of_nat i)) = snd_slot val (E + i) /\
     w (rv + field_offset Fst (ff - N.of_nat (List.length bs) + N.of_nat i)) = fst_slot val (E + i) b) /\
  (forall j, (j < ff - N.of_nat (List.length bs))%N -> w (rv + field_offset Fst j) = 0) /\
  (forall a, a < rv + 16 \/ rv + 16 + 16 * Z.of_N ff <= a -> w a = w0 a).

Lemma vals_ok_same s s' sp val E bs : same_but_temp s s' -> vals_ok s sp val E bs -> vals_ok s' sp val E bs.
Proof.
  intros SB H i b Hi. destruct (H i b Hi) as [A B]. split.
  - rewrite (same_but_temp_lget s s') by (auto using tpos_not_temp). exact A.
  - intros Hb. rewrite (same_but_temp_lget s s') by (auto using tpos_not_temp). auto.
Qed.
Lemma vals_ok_app_l s sp val E a b : vals_ok s sp val E (a ++ b) -> vals_ok s sp val E a.
Proof. intros H i x Hi. apply H. rewrite nth_error_app1; auto. apply nth_error_Some. congruence. Qed.
Lemma vals_ok_app_r s sp val E a b : vals_ok s sp val E (a ++ b) -> vals_ok s sp val (E + List.length a) b.
Proof.
  intros H i x Hi. specialize (H (List.length a + i)%nat x).
  rewrite nth_error_app2 in H by lia. replace (List.length a + i - List.length a)%nat with i in H by lia. specialize (H Hi).
  now replace (E + (List.length a + i))%nat with (E + List.length a + i)%nat in H by lia.
Qed.

Lemma vals_ok_firstn s s' sp val E bs rl :
  (rl <= List.length bs)%nat -> (2 * N.of_nat (E + rl) < MAXPOS)%N ->
  (forall k, (k < MAXPOS)%N -> k <> (2 * N.of_nat (E + rl))%N -> lget s' sp (tpos k) = lget s sp (tpos k)) ->
  vals_ok s sp val E bs -> vals_ok s' sp val E (firstn rl bs).
Proof.
  intros Hrl Hk Oth V i b Hi.
  assert (Hi' : (i < rl)%nat).
  { assert (H : (i < List.length (firstn rl bs))%nat) by (apply nth_error_Some; congruence). rewrite firstn_length in H. lia. }
  assert (Hin : nth_error bs i = Some b).
  { rewrite <- (firstn_skipn rl bs). rewrite nth_error_app1 by (rewrite firstn_length; lia). exact Hi. }
  destruct (V i b Hin) as [A B]. split; [rewrite Oth by lia; exact A|]. intros Hx. rewrite Oth by lia. auto.
Qed.
Lemma fsts_app val bs : forall E cs, fsts val E (bs ++ cs) = fsts val E bs ++ fsts val (E + List.length bs) cs.
Proof.
  induction bs as [|b r IH]; intros E cs; cbn [fsts app List.length].
  - now rewrite Nat.add_0_r.
  - rewrite IH. now replace (S E + List.length r)%nat with (E + S (List.length r))%nat by lia.
Qed.
Lemma fsts_length val bs : forall E, List.length (fsts val E bs) = List.length bs.
Proof. induction bs; intros; cbn; auto. Qed.

Lemma nseq_succ n : nseq 0 (N.succ n) = nseq 0 n ++ [n].
Proof. unfold nseq. rewrite N2Nat.inj_succ, seq_S, map_app. cbn. now rewrite N2Nat.id. Qed.

(* straight-line code proved with exec_straight (Proof/X86Sel.v) runs under `steps` *)
Lemma exec_straight_steps im cs : forall pos s s',
  exec_straight im cs s = Some s' -> code_at im pos cs -> steps im pos s (pnth pos (List.length cs)) s'.
Proof.
  induction cs as [|c r IH]; intros pos s s' H HC; cbn [exec_straight List.length pnth] in *.
  - inversion H. apply steps_refl.
  - destruct (step im c s) as [s1| | | |] eqn:ES; try discriminate.
    eapply steps_next; [apply (HC 0%nat); reflexivity|exact ES|].
    rewrite <- pnth_succ. apply IH; auto.
    intros n x Hn. rewrite pnth_succ. apply (HC (S n)). exact Hn.
Qed.

Section Store.
Variable im : image.

Definition store_field_code (t : xtemp) (blk : reg) (off : Z) : list xcode :=
  match t with XR r => [MOVS r blk off] | XS p => [MOVL TEMP STACK (stack_offset p); MOVS TEMP blk off] end.

Lemma store_field_shape n c blk j cs :
  store_field n c blk j = Ok cs ->
  (2 * N.of_nat (List.length c) + tnum_n n < MAXPOS)%N /\
  cs = store_field_code (tpos (2 * N.of_nat (List.length c) + tnum_n n)) blk (field_offset n j).
Proof.
  unfold store_field. destruct (x_fresh n c) as [t|] eqn:Et; [|discriminate]. cbn [rbind].
  apply x_fresh_tpos in Et as [-> Hk]. intros H. inversion H. split; [exact Hk|]. reflexivity.
Qed.

Lemma x86_store_field_code_ok pos t blk off s sp v rv :
  code_at im pos (store_field_code t blk off) ->
  frame_ok s sp -> loc_ok t -> lget s sp t = Some v ->
  blk <> TEMP -> rget s blk = Some rv -> heap_addr (rv + off) ->
  exists s', steps im pos s (pnth pos (List.length (store_field_code t blk off))) s' /\
    same_but_temp s s' /\ (forall a, hword s' a = if a =? rv + off then v else hword s a).
Proof.
  intros HC FR T V NB R Ha.
  assert (Hpos : 0 < rv + off) by (destruct Ha as (_ & A & _); unfold HEAP_BASE in A; lia).
  destruct t as [r|q]; cbn [store_field_code List.length lget loc_ok] in *.
  - exists (hset s (rv + off) v). split; [|split].
    + nxt HC 0%nat. { eapply step_MOVS_heap_off; eassumption. }
      apply steps_refl.
    + repeat split; reflexivity.
    + intros a. now apply hword_hset.
  - set (s1 := rset s TEMP (Some v)).
    exists (hset s1 (rv + off) v). split; [|split].
    + nxt HC 0%nat. { rewrite (step_MOVL_slot im s sp FR) by exact T. rewrite V. reflexivity. }
      nxt HC 1%nat. { eapply step_MOVS_heap_off; [|exact Ha|apply rget_rset_same]. unfold s1. rewrite rget_rset_other by congruence. exact R. }
      apply steps_refl.
    + split; [|split; reflexivity]. intros r Hr. rewrite rget_hset. unfold s1. now rewrite rget_rset_other by congruence.
    + intros a. rewrite hword_hset by exact Hpos. reflexivity.
Qed.

(* store_value: the integer slot, then the pointer slot (0 for an integer variable) *)
Lemma x86_store_value_ok pos b c blk j cs s sp rv (val : N -> Z) :
  store_value b c blk j = Ok cs -> code_at im pos cs -> (j < 3)%N ->
  frame_ok s sp -> blk <> TEMP -> rget s blk = Some rv -> is_blk rv ->
  lget s sp (tpos (2 * N.of_nat (List.length c) + 1)) = Some (snd_slot val (List.length c)) ->
  (bchi b <> Ext -> lget s sp (tpos (2 * N.of_nat (List.length c))) = Some (val (2 * N.of_nat (List.length c))%N)) ->
  exists s', steps im pos s (pnth pos (List.length cs)) s' /\ same_but_temp s s' /\
    (forall a, hword s' a = if a =? rv + field_offset Fst j then fst_slot val (List.length c) b
                            else if a =? rv + field_offset Snd j then snd_slot val (List.length c) else hword s a).
Proof.
  intros Hsv HC Hj FR NB R Hb V1 V0. unfold store_value in Hsv.
  destruct (store_field Snd c blk j) as [c1|] eqn:E1; [|discriminate]. cbn [rbind] in Hsv.
  apply store_field_shape in E1 as [K1 ->]. cbn [tnum_n] in *.
  assert (HaS : heap_addr (rv + field_offset Snd j)) by (now apply field_addr).
  assert (HaF : heap_addr (rv + field_offset Fst j)) by (now apply field_addr).
  assert (HposF : 0 < rv + field_offset Fst j) by (destruct HaF as (_ & A & _); unfold HEAP_BASE in A; lia).
  set (cS := store_field_code (tpos (2 * N.of_nat (List.length c) + 1)) blk (field_offset Snd j)) in *.
  assert (Hcs : exists c2, cs = cS ++ c2 /\
            ((bchi b = Ext /\ c2 = store_zero blk j) \/
             (bchi b <> Ext /\ (2 * N.of_nat (List.length c) < MAXPOS)%N /\ c2 = store_field_code (tpos (2 * N.of_nat (List.length c))) blk (field_offset Fst j)))).
  { destruct (bchi b) eqn:Echi.
    3:{ inversion Hsv. eexists; split; [reflexivity|]. left. auto. }
    all: destruct (store_field Fst c blk j) as [c2|] eqn:E2; [|discriminate]; cbn [rbind] in Hsv; inversion Hsv;
      apply store_field_shape in E2 as [K2 ->]; cbn [tnum_n] in *; rewrite N.add_0_r in *;
      eexists; split; [reflexivity|]; right; repeat split; auto; discriminate. }
  destruct Hcs as (c2 & -> & Hc2).
  apply code_at_app2 in HC as [HC1 HC2].
  destruct (x86_store_field_code_ok pos _ blk _ s sp _ rv HC1 FR (tpos_loc_ok _ K1) V1 NB R HaS) as (s1 & ST1 & SB1 & W1).
  assert (FR1 : frame_ok s1 sp) by (eapply same_but_temp_frame; eauto).
  assert (R1 : rget s1 blk = Some rv) by (destruct SB1 as (A & _); rewrite A by exact NB; exact R).
  destruct Hc2 as [[Hext ->]|(Hnext & K2 & ->)].
  - (* integer: zero the pointer slot *)
    exists (hset s1 (rv + field_offset Fst j) 0). split; [|split].
    + eapply steps_app_len; [exact ST1|]. cbn [store_zero List.length pnth].
      eapply steps_next; [apply (HC2 0%nat); reflexivity| |apply steps_refl].
      eapply step_MOVIM_heap_off; [exact R1|exact HaF|reflexivity].
    + eapply same_but_temp_trans; [exact SB1|]. repeat split; reflexivity.
    + intros a. rewrite hword_hset by exact HposF. unfold fst_slot. rewrite Hext.
      destruct (a =? rv + field_offset Fst j); [reflexivity|]. apply W1.
  - specialize (V0 Hnext).
    rewrite <- (same_but_temp_lget s s1 sp _ SB1 (tpos_not_temp _)) in V0.
    destruct (x86_store_field_code_ok _ _ blk _ s1 sp _ rv HC2 FR1 (tpos_loc_ok _ K2) V0 NB R1 HaF) as (s2 & ST2 & SB2 & W2).
    exists s2. split; [|split].
    + eapply steps_app_len; eassumption.
    + eapply same_but_temp_trans; eassumption.
    + intros a. rewrite W2. unfold fst_slot. destruct (bchi b); try contradiction;
        (destruct (a =? rv + field_offset Fst j); [reflexivity|apply W1]).
Qed.

(* store_zeros: the unused leading fields *)
Lemma x86_store_zeros_ok : forall ff pos blk s rv,
  (ff <= 3)%N -> code_at im pos (store_zeros ff blk) -> blk <> TEMP -> rget s blk = Some rv -> is_blk rv ->
  exists s', steps im pos s (pnth pos (List.length (store_zeros ff blk))) s' /\ same_but_temp s s' /\
    (forall j, (j < ff)%N -> hword s' (rv + field_offset Fst j) = 0) /\
    (forall a, a < rv + 16 \/ rv + 16 + 16 * Z.of_N ff <= a -> hword s' a = hword s a).
Proof.
  intros ff. induction ff as [|ff IH] using N.peano_ind; intros pos blk s rv Hff HC NB R Hb.
  - exists s. split; [apply steps_refl|]. split; [apply same_but_temp_refl|]. split; [intros j Hj; lia|auto].
  - unfold store_zeros in *. rewrite nseq_succ, flat_map_app in *. cbn [flat_map store_zero app] in *.
    apply code_at_app2 in HC as [HC1 HC2].
    destruct (IH pos blk s rv ltac:(lia) HC1 NB R Hb) as (s1 & ST1 & SB1 & Z1 & W1).
    assert (Ha : heap_addr (rv + field_offset Fst ff)) by (apply field_addr; auto; lia).
    assert (Hpos : 0 < rv + field_offset Fst ff) by (destruct Ha as (_ & A & _); unfold HEAP_BASE in A; lia).
    assert (R1 : rget s1 blk = Some rv) by (destruct SB1 as (A & _); rewrite A by exact NB; exact R).
    exists (hset s1 (rv + field_offset Fst ff) 0). split; [|split; [|split]].
    + eapply steps_app_len; [exact ST1|]. cbn [List.length pnth].
      eapply steps_next; [apply (HC2 0%nat); reflexivity| |apply steps_refl].
      eapply step_MOVIM_heap_off; [exact R1|exact Ha|reflexivity].
    + eapply same_but_temp_trans; [exact SB1|]. repeat split; reflexivity.
    + intros j Hj. rewrite hword_hset by exact Hpos.
      destruct (Z.eqb_spec (rv + field_offset Fst j) (rv + field_offset Fst ff)); [reflexivity|].
      apply Z1. rewrite !field_offset_val in n. cbn [tnum_n] in n. lia.
    + intros a Ha'. rewrite hword_hset by exact Hpos. rewrite field_offset_val. cbn [tnum_n].
      destruct (Z.eqb_spec a (rv + (16 + 16 * Z.of_N ff + 8 * Z.of_N 0))); [lia|]. apply W1. lia.
Qed.

Lemma x86_store_values_rev_ok : forall bsrev remaining blk ff cs pos s sp rv val,
  store_values bsrev remaining blk ff = Ok cs ->
  (N.of_nat (List.length bsrev) <= ff)%N -> (ff <= 3)%N ->
  code_at im pos cs -> frame_ok s sp -> blk <> TEMP -> rget s blk = Some rv -> is_blk rv ->
  vals_ok s sp val (List.length remaining) (rev bsrev) ->
  exists s', steps im pos s (pnth pos (List.length cs)) s' /\ same_but_temp s s' /\
     stored (hword s') (hword s) val (List.length remaining) (rev bsrev) rv ff.
Proof.
  induction bsrev as [|b rest IH]; intros remaining blk ff cs pos s sp rv val Hsv Hlen Hff HC FR NB R Hb V.
  - cbn [store_values] in Hsv. inversion Hsv; subst cs.
    destruct (x86_store_zeros_ok ff pos blk s rv Hff HC NB R Hb) as (s1 & ST & SB & Z1 & W1).
    exists s1. split; [exact ST|]. split; [exact SB|]. cbn [rev List.length]. split; [|split].
    + intros i b Hi. destruct i; discriminate.
    + intros j Hj. apply Z1. lia.
    + exact W1.
  - cbn [store_values] in Hsv. cbn [List.length] in Hlen.
    destruct (store_value b (remaining ++ rev rest) blk (ff - 1)) as [c1|] eqn:E1; [|discriminate]. cbn [rbind] in Hsv.
    destruct (store_values rest remaining blk (ff - 1)) as [c2|] eqn:E2; [|discriminate]. cbn [rbind] in Hsv.
    inversion Hsv; subst cs. clear Hsv.
    set (E := List.length remaining) in *. set (n := List.length rest) in *.
    assert (HL : List.length (remaining ++ rev rest) = (E + n)%nat) by (rewrite app_length, rev_length; reflexivity).
    apply code_at_app2 in HC as [HC1 HC2].
    cbn [rev] in V.
    assert (Vb := V n b). rewrite nth_error_app2, rev_length, Nat.sub_diag in Vb by (rewrite rev_length; apply Nat.le_refl).
    destruct (Vb eq_refl) as [Vb1 Vb0]. clear Vb.
    destruct (x86_store_value_ok pos b (remaining ++ rev rest) blk (ff - 1) c1 s sp rv val E1 HC1 ltac:(lia) FR NB R Hb) as (s1 & ST1 & SB1 & W1).
    { rewrite HL. exact Vb1. }
    { rewrite HL. exact Vb0. }
    rewrite HL in W1.
    assert (FR1 : frame_ok s1 sp) by (eapply same_but_temp_frame; eauto).
    assert (R1 : rget s1 blk = Some rv) by (destruct SB1 as (A & _); rewrite A by exact NB; exact R).
    assert (V1 : vals_ok s1 sp val E (rev rest)) by (eapply vals_ok_same; [exact SB1|]; eapply vals_ok_app_l; exact V).
    destruct (IH remaining blk (ff - 1)%N c2 _ s1 sp rv val E2 ltac:(lia) ltac:(lia) HC2 FR1 NB R1 Hb V1) as (s2 & ST2 & SB2 & (S1 & S2 & S3)).
    exists s2. split; [eapply steps_app_len; eassumption|]. split; [eapply same_but_temp_trans; eassumption|].
    assert (HF : field_offset Fst (ff - 1) = 16 * Z.of_N ff) by (rewrite field_offset_val; cbn [tnum_n]; lia).
    assert (HS : field_offset Snd (ff - 1) = 16 * Z.of_N ff + 8) by (rewrite field_offset_val; cbn [tnum_n]; lia).
    unfold stored. cbn [rev]. rewrite app_length, rev_length. cbn [List.length]. fold n. split; [|split].
    + intros i b' Hi. destruct (Nat.lt_ge_cases i n) as [Hlt|Hge].
      * rewrite nth_error_app1 in Hi by (rewrite rev_length; exact Hlt).
        destruct (S1 i b' Hi) as [A B]. rewrite rev_length in A, B. fold n in A, B.
        replace (ff - N.of_nat (n + 1) + N.of_nat i)%N with (ff - 1 - N.of_nat n + N.of_nat i)%N by lia. auto.
      * assert (i = n).
        { assert (i < List.length (rev rest ++ [b]))%nat by (apply nth_error_Some; congruence).
          rewrite app_length, rev_length in H. cbn [List.length] in H. fold n in H. lia. }
        subst i. rewrite nth_error_app2, rev_length, Nat.sub_diag in Hi by (rewrite rev_length; apply Nat.le_refl).
        inversion Hi; subst b'.
        replace (ff - N.of_nat (n + 1) + N.of_nat n)%N with (ff - 1)%N by lia.
        rewrite !S3 by (rewrite ?HF, ?HS; lia). rewrite !W1.
        rewrite Z.eqb_refl.
        destruct (Z.eqb_spec (rv + field_offset Snd (ff - 1)) (rv + field_offset Fst (ff - 1))) as [e|_]; [rewrite HF, HS in e; lia|].
        rewrite Z.eqb_refl. auto.
    + intros j Hj. apply S2. rewrite rev_length. fold n. lia.
    + intros a Ha. rewrite S3 by lia. rewrite W1.
      destruct (Z.eqb_spec a (rv + field_offset Fst (ff - 1))) as [e|_]; [rewrite HF in e; lia|].
      destruct (Z.eqb_spec a (rv + field_offset Snd (ff - 1))) as [e|_]; [rewrite HS in e; lia|]. reflexivity.
Qed.

Lemma stored_hdr w w0 val E bs rv ff : stored w w0 val E bs rv ff -> w rv = w0 rv.
Proof. intros (_ & _ & H). apply H. lia. Qed.
Lemma stored_other_blk w w0 val E bs rv ff x i :
  stored w w0 val E bs rv ff -> (ff <= 3)%N -> is_blk rv -> is_blk x -> x <> rv -> 0 <= i < 64 -> w (x + i) = w0 (x + i).
Proof. intros (_ & _ & H) Hff Hb Hx Hne Hi. apply H. destruct (is_blk_apart x rv Hx Hb Hne); lia. Qed.
Lemma stored_blk_hdr w w0 val E bs rv ff x :
  stored w w0 val E bs rv ff -> (ff <= 3)%N -> is_blk rv -> is_blk x -> w x = w0 x.
Proof.
  intros H Hff Hb Hx. destruct (Z.eq_dec x rv) as [->|Hne]; [eapply stored_hdr; eauto|].
  rewrite <- (Z.add_0_r x). eapply stored_other_blk; eauto. lia.
Qed.

Lemma fo_F0 : field_offset Fst 0 = 16. Proof. reflexivity. Qed.
Lemma fo_F1 : field_offset Fst 1 = 32. Proof. reflexivity. Qed.
Lemma fo_F2 : field_offset Fst 2 = 48. Proof. reflexivity. Qed.

(* the pointer slots of the block: pad ff (fsts ...) *)
Lemma stored_slots3 w w0 val E bs rv :
  stored w w0 val E bs rv 3 -> (List.length bs <= 3)%nat ->
  [w (rv + 16); w (rv + 32); w (rv + 48)] = Heap.pad 3 (fsts val E bs).
Proof.
  intros (S1 & S2 & _) Hlen.
  destruct bs as [|b0 [|b1 [|b2 [|]]]]; cbn [List.length] in *; try lia; unfold Heap.pad; cbn [fsts List.length Nat.sub repeat app].
  - rewrite <- fo_F0, <- fo_F1, <- fo_F2. rewrite !S2 by (cbn; lia). reflexivity.
  - destruct (S1 0%nat b0 eq_refl) as [_ A]. cbn in A.
    rewrite <- fo_F0, <- fo_F1. rewrite !S2 by (cbn; lia). rewrite A. repeat (f_equal; try lia).
  - destruct (S1 0%nat b0 eq_refl) as [_ A]. destruct (S1 1%nat b1 eq_refl) as [_ B]. cbn in A, B.
    rewrite <- fo_F0. rewrite !S2 by (cbn; lia). rewrite A, B. repeat (f_equal; try lia).
  - destruct (S1 0%nat b0 eq_refl) as [_ A]. destruct (S1 1%nat b1 eq_refl) as [_ B]. destruct (S1 2%nat b2 eq_refl) as [_ C].
    cbn in A, B, C. rewrite A, B, C. repeat (f_equal; try lia).
Qed.
Lemma stored_slots2 w w0 val E bs rv :
  stored w w0 val E bs rv 2 -> (List.length bs <= 2)%nat ->
  [w (rv + 16); w (rv + 32); w (rv + 48)] = Heap.pad 2 (fsts val E bs) ++ [w0 (rv + 48)].
Proof.
  intros (S1 & S2 & S3) Hlen. rewrite (S3 (rv + 48)) by lia.
  destruct bs as [|b0 [|b1 [|]]]; cbn [List.length] in *; try lia; unfold Heap.pad; cbn [fsts List.length Nat.sub repeat app].
  - rewrite <- fo_F0, <- fo_F1. rewrite !S2 by (cbn; lia). reflexivity.
  - destruct (S1 0%nat b0 eq_refl) as [_ A]. cbn in A.
    rewrite <- fo_F0. rewrite !S2 by (cbn; lia). rewrite A. repeat (f_equal; try lia).
  - destruct (S1 0%nat b0 eq_refl) as [_ A]. destruct (S1 1%nat b1 eq_refl) as [_ B]. cbn in A, B.
    rewrite A, B. repeat (f_equal; try lia).
Qed.

(* what store_values leaves in the third pointer slot: nothing of its own for a full block (cap 3),
   the link stored before for a continuation block (cap 2) *)
Definition link_slot (cap : N) (w0 : Z -> Z) (rv : Z) : list Z := if (cap =? 3)%N then [] else [w0 (rv + 48)].

Lemma stored_abs F s s' val E bs rv cap :
  stored (hword s') (hword s) val E bs rv cap -> (cap = 3 \/ cap = 2)%N -> (N.of_nat (List.length bs) <= cap)%N ->
  is_blk rv -> same_but_temp s s' ->
  st_eqB (abs_heap F s')
    {| Heap.m := Heap.set_ps (abs_mem s) rv (Heap.pad (N.to_nat cap) (fsts val E bs) ++ link_slot cap (hword s) rv);
       Heap.heap := reg_or0 s HEAP; Heap.free := reg_or0 s FREE; Heap.frontier := F |}.
Proof.
  intros St Hcap Hlen Hb SB. destruct (same_but_temp_regs _ _ SB) as [EH EF].
  split; [exact EH|]. split; [exact EF|]. split; [reflexivity|].
  intros x Hx. cbn [abs_heap Heap.m]. unfold Heap.set_ps, Heap.upd.
  assert (Hff : (cap <= 3)%N) by (destruct Hcap; subst; lia).
  destruct (Z.eqb_spec x rv) as [->|Hne].
  - unfold abs_mem at 1. rewrite (stored_hdr _ _ _ _ _ _ _ St). cbn [abs_mem Heap.hdr]. f_equal.
    destruct Hcap; subst cap; unfold link_slot; cbn [N.eqb Pos.eqb N.to_nat Pos.to_nat Pos.iter_op Nat.add].
    + rewrite app_nil_r. eapply stored_slots3; [exact St|lia].
    + eapply stored_slots2; [exact St|lia].
  - unfold abs_mem. rewrite <- (Z.add_0_r x) at 1.
    rewrite !(stored_other_blk _ _ _ _ _ _ _ x _ St Hff Hb Hx Hne) by lia. now rewrite Z.add_0_r.
Qed.

Theorem x86_store_values_ok pos to_store_next remaining_plus_rest cap cs s sp rv F val :
  store_values (rev to_store_next) remaining_plus_rest HEAP cap = Ok cs ->
  (cap = 3 \/ cap = 2)%N -> (N.of_nat (List.length to_store_next) <= cap)%N ->
  code_at im pos cs -> frame_ok s sp -> rget s HEAP = Some rv -> is_blk rv ->
  vals_ok s sp val (List.length remaining_plus_rest) to_store_next ->
  exists s', steps im pos s (pnth pos (List.length cs)) s' /\
    same_but_temp s s' /\
    stored (hword s') (hword s) val (List.length remaining_plus_rest) to_store_next rv cap /\
    st_eqB (abs_heap F s')
      {| Heap.m := Heap.set_ps (abs_mem s) rv
                     (Heap.pad (N.to_nat cap) (fsts val (List.length remaining_plus_rest) to_store_next) ++ link_slot cap (hword s) rv);
         Heap.heap := reg_or0 s HEAP; Heap.free := reg_or0 s FREE; Heap.frontier := F |}.
Proof.
  intros Hsv Hcap Hlen HC FR R Hb V.
  destruct (x86_store_values_rev_ok (rev to_store_next) remaining_plus_rest HEAP cap cs pos s sp rv val Hsv) as (s1 & ST & SB & St); auto.
  - rewrite rev_length. exact Hlen.
  - destruct Hcap; subst; lia.
  - discriminate.
  - rewrite rev_involutive. exact V.
  - rewrite rev_involutive in St. exists s1. split; [exact ST|]. split; [exact SB|]. split; [exact St|].
    now apply stored_abs.
Qed.

Lemma x86_acquire_block_tpos_ok pos k lc s sp rv h2 F :
  let cs := fst (acquire_block (tpos k) lc) in
  (k < MAXPOS)%N ->
  code_at im pos cs -> labels_at im pos cs -> frame_ok s sp ->
  rget s HEAP = Some rv -> is_blk rv -> rget s FREE = Some h2 ->
  (hword s rv = 0 -> is_blk h2) ->
  (hword s rv = 0 -> hword s h2 <> 0 ->
     (forall off, off = 16 \/ off = 32 \/ off = 48 -> hword s (h2 + off) = 0 \/ is_blk (hword s (h2 + off))) /\
     bounded 3 s (hword s h2)) ->
  exists s', steps im pos s (pnth pos (List.length cs)) s' /\
    st_eqB (abs_heap (Heap.frontier (snd (Heap.acquire (abs_heap F s)))) s') (snd (Heap.acquire (abs_heap F s))) /\
    lget s' sp (tpos k) = Some rv /\ fst (Heap.acquire (abs_heap F s)) = rv /\
    (forall l, loc_ok l -> l <> tpos k -> l <> XR TEMP -> l <> XR HEAP -> l <> XR FREE -> lget s' sp l = lget s sp l) /\
    out s' = out s /\ frame_ok s' sp /\ nonblk_same s s' /\ stack_frame s s' sp.
Proof.
  intros cs Hk HC HL FR R Hb Rf Hb2 Hch. unfold cs in *. clear cs.
  pose proof (tpos_loc_ok k Hk) as LK. destruct (tpos_not_reserved k) as (N0 & NT & NH & NF & _).
  destruct (tpos k) as [r|q] eqn:Et; cbn [loc_ok] in LK.
  - destruct (x86_acquire_block_reg_frame im pos r lc s sp rv h2 F HC HL FR) as (s' & ST & EQ & Rr & Ef & Oth & Stk & Out & FR' & NB); auto; try congruence.
    exists s'. split; [exact ST|]. split; [exact EQ|]. split; [exact Rr|]. split; [exact Ef|]. split; [|auto using stack_frame_eq].
    intros l Ll N1 N2 N3 N4. destruct l as [r'|q']; cbn [lget].
    + apply Oth; congruence.
    + unfold sget. now rewrite Stk.
  - destruct (x86_acquire_block_spill_frame im pos q lc s sp rv h2 F HC HL FR LK R Hb Rf Hb2 Hch) as (s' & ST & EQ & Ef & Oth & Stk & Out & FR' & NB).
    assert (Sl : forall q', sget s' sp q' = sget (sset s sp q (Some rv)) sp q') by (intros q'; unfold sget; now rewrite Stk).
    exists s'. split; [exact ST|]. split; [exact EQ|]. split; [cbn [lget]; rewrite Sl; apply sget_sset_same|]. split; [exact Ef|].
    split; [|split; [exact Out|split; [exact FR'|split; [exact NB|]]]].
    + intros l Ll N1 N2 N3 N4. destruct l as [r'|q']; cbn [lget loc_ok] in *.
      * apply Oth; congruence.
      * rewrite Sl. apply sget_sset_other; [apply FR|exact LK|exact Ll|congruence].
    + apply (stack_frame_trans s (sset s sp q (Some rv))); [now apply stack_frame_sset|now apply stack_frame_eq].
Qed.

Lemma x_store_one_block_shape to_store remaining lc cs lc' :
  (1 <= List.length to_store <= 3)%nat ->
  x_store to_store remaining lc = Ok (cs, lc') ->
  exists sv, store_values (rev to_store) remaining HEAP 3 = Ok sv /\
    (2 * N.of_nat (List.length remaining) < MAXPOS)%N /\
    cs = sv ++ fst (acquire_block (tpos (2 * N.of_nat (List.length remaining))) lc) /\
    lc' = snd (acquire_block (tpos (2 * N.of_nat (List.length remaining))) lc).
Proof.
  intros Hlen H. unfold x_store in H. cbn [store_fields] in H.
  destruct to_store as [|x r]; [cbn in Hlen; lia|].
  change (FIELDS_PER_BLOCK - bp_n Last)%N with 3%N in H.
  assert (Hle : N.leb (N.of_nat (List.length (x :: r))) 3 = true) by (apply N.leb_le; cbn [List.length] in *; lia).
  rewrite Hle in H. change (N.to_nat 0) with 0%nat in H. cbn [firstn skipn] in H.
  rewrite app_nil_r in H. cbn [rbind] in H.
  destruct (store_values (rev (x :: r)) remaining HEAP 3) as [sv|] eqn:Esv; [|discriminate]. cbn [rbind] in H.
  destruct (x_fresh Fst remaining) as [t|] eqn:Et; [|discriminate]. cbn [rbind] in H.
  apply x_fresh_tpos in Et as [-> Hk]. cbn [tnum_n] in *. rewrite N.add_0_r in *.
  destruct (acquire_block (tpos (2 * N.of_nat (List.length remaining))) lc) as [c2 lc2] eqn:EA.
  cbn [List.length store_fields rbind] in H. inversion H.
  exists sv. split; [reflexivity|]. split; [exact Hk|]. cbn [fst snd]. now rewrite app_nil_r.
Qed.

Theorem x86_store_one_block_ok pos to_store remaining lc cs lc' s sp rv h2 F val :
  x_store to_store remaining lc = Ok (cs, lc') ->
  (1 <= List.length to_store <= 3)%nat ->
  code_at im pos cs -> labels_at im pos cs ->
  frame_ok s sp ->
  rget s HEAP = Some rv -> is_blk rv -> rget s FREE = Some h2 ->
  (hword s rv = 0 -> is_blk h2) ->
  (hword s rv = 0 -> hword s h2 <> 0 ->
     (forall off, off = 16 \/ off = 32 \/ off = 48 -> hword s (h2 + off) = 0 \/ is_blk (hword s (h2 + off))) /\
     bounded 3 s (hword s h2)) ->
  vals_ok s sp val (List.length remaining) to_store ->
  let E := List.length remaining in
  let n := List.length to_store in
  let res := Heap.alloc (Heap.pad 3 (fsts val E to_store)) (abs_heap F s) in
  exists s', steps im pos s (pnth pos (List.length cs)) s' /\
    st_eqB (abs_heap (Heap.frontier (snd res)) s') (snd res) /\
    fst res = rv /\
    lget s' sp (tpos (2 * N.of_nat E)) = Some rv /\
    (forall i, (i < n)%nat -> hword s' (rv + field_offset Snd (3 - N.of_nat n + N.of_nat i)) = snd_slot val (E + i)) /\
    (forall k, (k < MAXPOS)%N -> k <> (2 * N.of_nat E)%N -> lget s' sp (tpos k) = lget s sp (tpos k)) /\
    out s' = out s /\ frame_ok s' sp.
Proof.
  intros Hst Hlen HC HL FR R Hb Rf Hb2 Hch V E n res.
  destruct (x_store_one_block_shape _ _ _ _ _ Hlen Hst) as (sv & Hsv & Hk & -> & _).
  apply code_at_app2 in HC as [HC1 HC2]. apply labels_at_app2 in HL as [_ HL2].
  destruct (x86_store_values_ok pos to_store remaining 3 sv s sp rv F val Hsv ltac:(auto) ltac:(lia) HC1 FR R Hb V)
    as (s1 & ST1 & SB1 & St & EQ1).
  fold E in St, EQ1, Hk, HC2, HL2.
  assert (RH : reg_or0 s HEAP = rv) by (unfold reg_or0; now rewrite R).
  assert (RF : reg_or0 s FREE = h2) by (unfold reg_or0; now rewrite Rf).
  unfold link_slot in EQ1. cbn [N.eqb Pos.eqb] in EQ1. rewrite app_nil_r in EQ1. change (N.to_nat 3) with 3%nat in EQ1.
  rewrite RH, RF in EQ1.
  assert (Eres : res = Heap.acquire {| Heap.m := Heap.set_ps (abs_mem s) rv (Heap.pad 3 (fsts val E to_store));
                                       Heap.heap := rv; Heap.free := h2; Heap.frontier := F |}).
  { unfold res, Heap.alloc. cbn [abs_heap Heap.m Heap.heap Heap.free Heap.frontier]. now rewrite RH, RF. }
  set (A1 := {| Heap.m := Heap.set_ps (abs_mem s) rv (Heap.pad 3 (fsts val E to_store));
                Heap.heap := rv; Heap.free := h2; Heap.frontier := F |}) in *.
  clearbody res. subst res.
  (* the state after the stores: allocator registers and all block headers are as before *)
  assert (FR1 : frame_ok s1 sp) by (eapply same_but_temp_frame; eauto).
  assert (R1 : rget s1 HEAP = Some rv) by (destruct SB1 as (A & _); rewrite A by discriminate; exact R).
  assert (Rf1 : rget s1 FREE = Some h2) by (destruct SB1 as (A & _); rewrite A by discriminate; exact Rf).
  assert (Hdr : forall x, is_blk x -> hword s1 x = hword s x) by (intros x Hx; eapply stored_blk_hdr; eauto; lia).
  assert (Hb21 : hword s1 rv = 0 -> is_blk h2) by (rewrite Hdr by auto; exact Hb2).
  assert (Hch1 : hword s1 rv = 0 -> hword s1 h2 <> 0 ->
     (forall off, off = 16 \/ off = 32 \/ off = 48 -> hword s1 (h2 + off) = 0 \/ is_blk (hword s1 (h2 + off))) /\
     bounded 3 s1 (hword s1 h2)).
  { intros H0 Hn0. pose proof (Hb21 H0) as Hbh2.
    assert (Hne : h2 <> rv) by (intros ->; contradiction).
    rewrite Hdr in H0, Hn0 by auto. destruct (Hch H0 Hn0) as [Kids [B1 B2]]. split.
    - intros off Hoff. rewrite (stored_other_blk _ _ _ _ _ _ _ h2 off St) by (auto; lia). now apply Kids.
    - rewrite Hdr by auto. split; [|exact B2]. intros x Hx. rewrite Hdr by auto. now apply B1. }
  destruct (x86_acquire_block_tpos_ok _ _ lc s1 sp rv h2 F Hk HC2 HL2 FR1 R1 Hb Rf1 Hb21 Hch1)
    as (s2 & ST2 & EQ2 & Rr & Ef & Oth & Out & FR2 & NB & _).
  destruct (acquire_st_eqB (abs_heap F s1) A1 EQ1) as [Efst Esnd].
  { cbn [abs_heap Heap.heap]. unfold reg_or0. now rewrite R1. }
  { cbn [abs_heap Heap.heap Heap.free Heap.m]. unfold reg_or0. rewrite R1, Rf1. exact Hb21. }
  { cbn [abs_heap Heap.heap Heap.free Heap.m]. unfold reg_or0. rewrite R1, Rf1. intros H0 Hn0.
    destruct (Hch1 H0 Hn0) as [Kids _]. cbn [abs_mem Heap.ps]. repeat (apply Forall_cons; [apply Kids; auto|]). apply Forall_nil. }
  assert (EFr : Heap.frontier (snd (Heap.acquire (abs_heap F s1))) = Heap.frontier (snd (Heap.acquire A1)))
    by (destruct Esnd as (_ & _ & A & _); exact A).
  exists s2. split; [eapply steps_app_len; eassumption|].
  split; [rewrite <- EFr; eapply st_eqB_trans; eassumption|].
  split; [rewrite <- Efst; exact Ef|].
  split; [exact Rr|].
  split; [|split; [|split]].
  - intros i Hi. destruct (nth_error to_store i) as [b|] eqn:Eb; [|apply nth_error_None in Eb; unfold n in *; lia].
    rewrite NB by (apply field_not_blk; [exact Hb|unfold n in *; lia]).
    destruct St as (S1 & _). destruct (S1 i b Eb) as [A _]. exact A.
  - intros k Hk' Hne. rewrite Oth.
    + apply same_but_temp_lget; [exact SB1|apply tpos_not_temp].
    + now apply tpos_loc_ok.
    + intro Eq. apply tpos_inj in Eq. contradiction.
    + apply tpos_not_reserved.
    + apply tpos_not_reserved.
    + apply tpos_not_reserved.
  - rewrite Out. destruct SB1 as (_ & _ & A). exact A.
  - exact FR2.
Qed.

(* nothing to store: the null pointer *)
Theorem x86_store_empty_ok pos remaining lc cs lc' s sp :
  x_store [] remaining lc = Ok (cs, lc') ->
  code_at im pos cs -> frame_ok s sp ->
  lc' = lc /\
  exists s', steps im pos s (pnth pos (List.length cs)) s' /\
    lget s' sp (tpos (2 * N.of_nat (List.length remaining))) = Some 0 /\
    (forall l, loc_ok l -> l <> tpos (2 * N.of_nat (List.length remaining)) -> l <> XR TEMP -> lget s' sp l = lget s sp l) /\
    heap s' = heap s /\ out s' = out s /\ frame_ok s' sp.
Proof.
  intros H HC FR. unfold x_store in H. cbn [List.length store_fields] in H.
  destruct (x_fresh Fst remaining) as [t|] eqn:Et; [|discriminate]. cbn [rbind] in H.
  apply x_fresh_tpos in Et as [-> Hk]. cbn [tnum_n] in *. rewrite N.add_0_r in *. inversion H; subst cs lc'.
  split; [reflexivity|].
  destruct (x86_load_immediate_ok im s sp (tpos (2 * N.of_nat (List.length remaining))) 0 FR (tpos_loc_ok _ Hk) (tpos_not_temp _))
    as (s' & EX & V & (P1 & P2 & P3 & P4)).
  exists s'. split; [now apply exec_straight_steps|]. auto.
Qed.
End Store.

Fixpoint nodupb (l : list string) : bool :=
  match l with [] => true | x :: r => negb (existsb (String.eqb x) r) && nodupb r end.
Lemma nodupb_sound l : nodupb l = true -> NoDup l.
Proof.
  induction l as [|x r IH]; cbn [nodupb]; intros H; [constructor|].
  apply andb_true_iff in H as [H1 H2]. constructor; auto.
  intros Hin. apply negb_true_iff in H1. assert (existsb (String.eqb x) r = true); [|congruence].
  apply existsb_exists. exists x. split; [exact Hin|apply String.eqb_refl].
Qed.

(* the hypotheses are satisfiable: an integer and a (null) producer into a fresh heap *)
Definition ex_val (k : N) : Z := match k with 1%N => 42 | 2%N => 0 | 3%N => 7 | _ => 0 end.
Definition ex_sp : Z := STACK_TOP - 4096.
Definition ex_state : xstate :=
  rset (rset (rset (rset (rset (rset (init_state []) 0 (Some ex_sp)) HEAP (Some HEAP_BASE)) FREE (Some (HEAP_BASE + 64)))
                   5 (Some 42)) 6 (Some 0)) 7 (Some 7).
Definition ex_store : ctx := [mkb ("x"%string, 0%N) Ext I64; mkb ("y"%string, 1%N) Prd (Decl ("T"%string, 0%N))].
Definition ex_store_code : list xcode := match x_store ex_store [] 0 with Ok (cs, _) => cs | Err _ => [] end.

Example x86_store_one_block_example :
  let res := Heap.alloc (Heap.pad 3 (fsts ex_val 0 ex_store)) (abs_heap (HEAP_BASE + 64) ex_state) in
  x_store ex_store [] 0 = Ok (ex_store_code, 13%N) /\
  exists s', steps (mk_image ex_store_code) 1 ex_state (pnth 1 (List.length ex_store_code)) s' /\
     st_eqB (abs_heap (Heap.frontier (snd res)) s') (snd res) /\ fst res = HEAP_BASE /\
     rget s' 4%N = Some HEAP_BASE /\ hword s' (HEAP_BASE + 40) = 42 /\ hword s' (HEAP_BASE + 56) = 7.
Proof.
  intros res.
  assert (Hx : x_store ex_store [] 0 = Ok (ex_store_code, 13%N)) by (vm_compute; reflexivity).
  split; [exact Hx|].
  destruct (mk_image_code_labels ex_store_code) as [HC HL]; [apply nodupb_sound; vm_compute; reflexivity|].
  destruct (x86_store_one_block_ok (mk_image ex_store_code) 1 ex_store [] 0 ex_store_code 13 ex_state ex_sp HEAP_BASE (HEAP_BASE + 64)
              (HEAP_BASE + 64) ex_val Hx ltac:(cbn; lia) HC HL)
    as (s' & ST & EQ & Ef & Rr & Snds & _).
  - split; [vm_compute; reflexivity|exact sp_ok_below_top].
  - vm_compute; reflexivity.
  - apply (is_blk_nth 0); unfold HEAP_SIZE; lia.
  - vm_compute; reflexivity.
  - intros _. apply (is_blk_nth 1); unfold HEAP_SIZE; lia.
  - intros _ H. exfalso. apply H. vm_compute; reflexivity.
  - intros i b Hi. destruct i as [|[|[|i]]]; cbn in Hi; try discriminate; inversion Hi; subst b;
      (split; [vm_compute; reflexivity|intros Hb; try (exfalso; apply Hb; reflexivity); vm_compute; reflexivity]).
  - exists s'. split; [exact ST|]. split; [exact EQ|]. split; [exact Ef|]. split; [exact Rr|].
    split; [exact (Snds 0%nat ltac:(cbn; lia))|exact (Snds 1%nat ltac:(cbn; lia))].
Qed.

Print Assumptions x86_store_values_ok.
Print Assumptions x86_store_one_block_ok.
Print Assumptions x86_store_empty_ok.
Print Assumptions x86_store_one_block_example.
