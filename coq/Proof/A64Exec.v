(* Execution of AArch64 code embedded in a program image (labels, branches), as a relation over
   Sem/A64Sem.step; the link with straight-line execution; and the pure heap-level meaning of the
   two reference-count operations an explicit substitution emits. *)
From Coq Require Import List ZArith NArith String Bool Lia FMapPositive.
From SCC Require Import Base.Sexp Lang.AxSyn Sem.AxSem Model.Backend Model.A64 Sem.A64Sem Generated.Constants
     Proof.A64State.
Import ListNotations.
Open Scope Z_scope.

(* index arithmetic: the j-th instruction after index pc *)
Fixpoint padd (pc : positive) (j : nat) : positive :=
  match j with O => pc | S j' => padd (Pos.succ pc) j' end.
Lemma padd_succ pc j : padd pc (S j) = Pos.succ (padd pc j).
Proof. revert pc; induction j as [|j IH]; intros pc; cbn; [reflexivity|]. now rewrite <- IH. Qed.
Lemma padd_add pc a b : padd pc (a + b) = padd (padd pc a) b.
Proof. revert pc; induction a as [|a IH]; intros pc; cbn; auto. Qed.

(* the code [cs] sits in the image at index pc, and its labels resolve to their own positions *)
Definition code_at (im : image) (pc : positive) (cs : list acode) : Prop :=
  forall j c, nth_error cs j = Some c -> PM.find (padd pc j) (code im) = Some c.
Definition labels_at (im : image) (pc : positive) (cs : list acode) : Prop :=
  forall j l, nth_error cs j = Some (LAB l) -> find_label (labels im) l = Some (padd pc j).

Lemma code_at_app im pc a b : code_at im pc (a ++ b) <-> code_at im pc a /\ code_at im (padd pc (List.length a)) b.
Proof.
  unfold code_at. split.
  - intros H. split.
    + intros j c Hj. apply H. rewrite nth_error_app1; auto. apply nth_error_Some. congruence.
    + intros j c Hj. rewrite <- padd_add. apply H. rewrite nth_error_app2 by lia.
      replace (List.length a + j - List.length a)%nat with j by lia. exact Hj.
  - intros [Ha Hb] j c Hj. destruct (Nat.lt_ge_cases j (List.length a)) as [L|L].
    + apply Ha. now rewrite nth_error_app1 in Hj.
    + rewrite nth_error_app2 in Hj by lia. apply Hb in Hj. rewrite <- padd_add in Hj.
      now replace (List.length a + (j - List.length a))%nat with j in Hj by lia.
Qed.
Lemma labels_at_app im pc a b : labels_at im pc (a ++ b) <-> labels_at im pc a /\ labels_at im (padd pc (List.length a)) b.
Proof.
  unfold labels_at. split.
  - intros H. split.
    + intros j c Hj. apply H. rewrite nth_error_app1; auto. apply nth_error_Some. congruence.
    + intros j c Hj. rewrite <- padd_add. apply H. rewrite nth_error_app2 by lia.
      replace (List.length a + j - List.length a)%nat with j by lia. exact Hj.
  - intros [Ha Hb] j c Hj. destruct (Nat.lt_ge_cases j (List.length a)) as [L|L].
    + apply Ha. now rewrite nth_error_app1 in Hj.
    + rewrite nth_error_app2 in Hj by lia. apply Hb in Hj. rewrite <- padd_add in Hj.
      now replace (List.length a + (j - List.length a))%nat with j in Hj by lia.
Qed.
Lemma code_at_cons im pc c cs : code_at im pc (c :: cs) <-> PM.find pc (code im) = Some c /\ code_at im (Pos.succ pc) cs.
Proof.
  change (c :: cs) with (([c] ++ cs)%list). rewrite code_at_app. cbn [List.length padd]. split; intros [A B]; split; auto.
  - apply (A 0%nat). reflexivity.
  - intros [|j] c' H; cbn in H; [now inversion H; subst|destruct j; discriminate].
Qed.

Lemma labels_at_tail im pc c cs : labels_at im pc (c :: cs) -> labels_at im (Pos.succ pc) cs.
Proof. intros H j l Hj. apply (H (S j)). exact Hj. Qed.

(* small-step execution inside an image: from (pc, s) to (pc', s') *)
Inductive exec_to (im : image) : positive -> astate -> positive -> astate -> Prop :=
| exec_refl pc s : exec_to im pc s pc s
| exec_next pc c s s1 pc' s' :
    PM.find pc (code im) = Some c -> step im c s = Next s1 ->
    exec_to im (Pos.succ pc) s1 pc' s' -> exec_to im pc s pc' s'
| exec_jump pc c s s1 i pc' s' :
    PM.find pc (code im) = Some c -> step im c s = Jump s1 i ->
    exec_to im i s1 pc' s' -> exec_to im pc s pc' s'.

(* two sums of code lengths name the same position *)
Ltac padd_eq := rewrite <- ?padd_add; f_equal; repeat (rewrite app_length || cbn [List.length]); lia.

(* `nxt HC k`: the next instruction is the k-th of the code that HC : code_at places at pc; leaves its
   step and the rest of the run *)
Ltac nxt HC k := eapply exec_next; [apply (HC k); reflexivity| |].

Lemma exec_to_trans im pc1 s1 pc2 s2 pc3 s3 :
  exec_to im pc1 s1 pc2 s2 -> exec_to im pc2 s2 pc3 s3 -> exec_to im pc1 s1 pc3 s3.
Proof. induction 1; intros H2; auto; [eapply exec_next|eapply exec_jump]; eauto. Qed.

Lemma run_straight_exec_to im cs : forall pc s s',
  code_at im pc cs -> run_straight im cs s = MOk s' -> exec_to im pc s (padd pc (List.length cs)) s'.
Proof.
  induction cs as [|c cs IH]; intros pc s s' C E; cbn in *.
  - inversion E; subst. constructor.
  - apply code_at_cons in C as [C0 C1]. destruct (step im c s) eqn:St; try discriminate.
    eapply exec_next; eauto.
Qed.

(* one step of the relation is one step of the executable machine *)
Lemma exec_to_run_chunk im pc s pc' s' :
  exec_to im pc s pc' s' -> exists n, forall f, run_chunk (n + f) im pc s = run_chunk f im pc' s'.
Proof.
  induction 1 as [pc s|pc c s s1 pc' s' C St _ [n IH]|pc c s s1 i pc' s' C St _ [n IH]].
  - exists 0%nat. reflexivity.
  - exists (S n). intros f. cbn [Nat.add run_chunk]. rewrite C, St. apply IH.
  - exists (S n). intros f. cbn [Nat.add run_chunk]. rewrite C, St. apply IH.
Qed.

Definition hget (h : PM.t Z) (a : Z) : Z := match PM.find (key a) h with Some z => z | None => 0 end.
(* a pointer the generated code may dereference: 8-aligned, inside the heap region *)
Definition block_ok (p : Z) : Prop := p mod 8 = 0 /\ in_heap p = true.

Lemma mload_heap s p : block_ok p -> mload s p = MOk (Some (hget (heap s) p)).
Proof. intros (A & H). unfold mload, aligned. rewrite A, H. reflexivity. Qed.
Definition set_heap (s : astate) (a v : Z) : astate :=
  {| regs := regs s; spv := spv s; heap := PM.add (key a) v (heap s); stack := stack s; flags := flags s; out := out s;
     hw := Z.max (hw s) a |}.
Lemma mstore_heap s p v : block_ok p -> mstore s p (Some v) = MOk (set_heap s p v).
Proof. intros (A & H). unfold mstore, aligned. rewrite A, H. reflexivity. Qed.

(* pure meaning of share_block_n / erase_block on (heap, FREE); p = the pointer the variable holds.
   The header test of erase is the machine's: CMP sets Z from the 64-bit result, so it is
   `wrap header = 0`; for a header that is a 64-bit value this is `header = 0` (erase_h_in64). *)
Definition share_h (p n : Z) (hf : PM.t Z * Z) : PM.t Z * Z :=
  if p =? 0 then hf else (PM.add (key p) (wrap (hget (fst hf) p + n)) (fst hf), snd hf).
Definition erase_h (p : Z) (hf : PM.t Z * Z) : PM.t Z * Z :=
  if p =? 0 then hf
  else if wrap (hget (fst hf) p) =? 0 then (PM.add (key p) (snd hf) (fst hf), p)
  else (PM.add (key p) (wrap (hget (fst hf) p - 1)) (fst hf), snd hf).
(* the meaning of the update for a variable with k targets *)
Definition count_h (p : Z) (k : nat) (hf : PM.t Z * Z) : PM.t Z * Z :=
  match k with
  | O => erase_h p hf
  | S O => hf
  | S (S n) => share_h p (Z.of_nat (S n)) hf
  end.

Lemma wrap_in64 z : min_int <= z <= max_int -> wrap z = z.
Proof. unfold wrap, min_int, max_int, two63, two64. intros H. rewrite Z.mod_small; lia. Qed.
Lemma erase_h_in64 p hf :
  min_int <= hget (fst hf) p <= max_int ->
  erase_h p hf = if p =? 0 then hf
                 else if hget (fst hf) p =? 0 then (PM.add (key p) (snd hf) (fst hf), p)
                 else (PM.add (key p) (wrap (hget (fst hf) p - 1)) (fst hf), snd hf).
Proof. intros H. unfold erase_h. now rewrite (wrap_in64 _ H). Qed.
