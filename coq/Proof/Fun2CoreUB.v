(* Proof/Fun2CoreUB  -  the free-variable bound of the translation, for the fragment [frag]:
   every free binding (name, chirality, type) of  wc t cont  is either EXACTLY the binding in scope
   of a name occurring in t, or a free binding of cont; every free binding of  cmp t ty  is of the
   first kind.  In particular compiler-generated names are never free in the output, and a shared
   continuation's parameter list never mentions a name that is not in scope. *)
From Coq Require Import List ZArith NArith String Bool Lia.
From SCC Require Import Base.Sexp Lang.SynUtil Lang.FunSyn Lang.FunTy Lang.CoreSyn.
From SCC Require Import Model.Fun2Core Proof.Fun2CoreProof Proof.Fun2CoreTfv Proof.Fun2CoreInv.
Import ListNotations.
Open Scope string_scope.
Open Scope list_scope.

Arguments var_ok : simpl never.

Definition inG (G : list cbinding) (l : list string) (bb : cbinding) : Prop :=
  gl G (cbvar bb) = Some bb /\ In (cbvar bb) (map new_id l).
Lemma inG_incl : forall G l l' bb, inG G l bb -> incl l l' -> inG G l' bb.
Proof.
  intros G l l' bb [H1 H2] Hi. split; [exact H1|]. apply in_map_iff in H2. destruct H2 as [x [Hx Hin]].
  apply in_map_iff. exists x. split; [exact Hx | apply Hi; exact Hin].
Qed.
Definition cont_cns (cont : cterm) : Prop := match cont with CMu c _ _ _ => c = CCns | _ => True end.

Ltac inc := let z := fresh "z" in let Hz := fresh "Hz" in
  intros z Hz; simpl; rewrite ?in_app_iff; simpl; tauto.

(* a binding found in a scope extended by one binder, other than that binder *)
Lemma inG_cons_inv : forall b0 G l bb, inG (b0 :: G) l bb -> bb <> b0 -> inG G l bb.
Proof.
  intros b0 G l bb [H1 H2] Hne. split; [|exact H2]. rewrite gl_cons in H1.
  destruct (cident_eqb (cbvar b0) (cbvar bb)); [injection H1 as H1; congruence | exact H1].
Qed.
Lemma inG_app_inv : forall A G l bb, inG (A ++ G) l bb -> ~ In bb A -> inG G l bb.
Proof.
  intros A G l bb [H1 H2] Hn. split; [|exact H2]. apply gl_app in H1. destruct H1; [contradiction | assumption].
Qed.

Section UB.
  Variable p : fcprog.
  Variable cur : string.
  Notation wc' := (wc (codata_of p) cur false).
  Notation cmp' := (cmp (codata_of p) cur false).

  Lemma share_fvt : forall cont st k st', share cur cont st = Ok (k, st') -> cont_cns cont ->
    cont_cns k /\ forall bb, In bb (fvt k) -> In bb (fvt cont).
  Proof.
    intros cont st k st' H Hc.
    destruct (share_inv _ _ _ _ _ H) as [var [ty [body [stv [name [Hm [Hv [Hl Hk]]]]]]]]. subst k.
    split; [reflexivity|]. intros bb Hb. apply fvt_mu_iff in Hb. destruct Hb as [Hb Hne]. simpl in Hne.
    apply (proj1 (fvs_call _ _ _ _)) in Hb. apply (proj1 (fva_arg_of_binding _ _)) in Hb. fold (fvs body) in Hb.
    destruct cont;
      try (destruct Hm as [xx [_ [Hvar [Hty Hbody]]]]; subst body; apply fvs_cut in Hb; destruct Hb as [Hb|Hb];
           [apply fvt_var in Hb; subst var; congruence | exact Hb]).
    destruct Hm as [Hvar [Hty [Hbody _]]]. simpl in Hc. subst.
    apply fvt_mu_iff. split; assumption.
  Qed.

  Definition ubw (t : fterm) : Prop :=
    forall G cont st s st', wc' t cont st = Ok (s, st') -> frag p t = true -> ws G t = true -> cont_cns cont ->
      forall bb, In bb (fvs s) -> inG G (nm t) bb \/ In bb (fvt cont).
  Definition ubc (t : fterm) : Prop :=
    forall G ty st c st', cmp' t ty st = Ok (c, st') -> frag p t = true -> ws G t = true ->
      forall bb, In bb (fvt c) -> inG G (nm t) bb.

  Lemma ub_default : forall (w : cterm -> M cstmt) l G,
    (forall cont st s st', w cont st = Ok (s, st') -> cont_cns cont ->
       forall bb, In bb (fvs s) -> inG G l bb \/ In bb (fvt cont)) ->
    forall ty st c st', default_compile w ty st = Ok (c, st') -> forall bb, In bb (fvt c) -> inG G l bb.
  Proof.
    intros w l G Hw ty st c st' H bb Hb. apply default_compile_inv in H.
    destruct H as [a [sta [s [Ha [Hs Hc]]]]]. subst c. apply fvt_mu_iff in Hb. destruct Hb as [Hb Hne].
    destruct (Hw _ _ _ _ Hs I bb Hb) as [Hg|Hg]; [exact Hg|]. apply fvt_var in Hg. simpl in Hne. congruence.
  Qed.

  Lemma ub_guard : forall (w : cterm -> M cstmt) l G binders ty,
    (forall cont st s st', w cont st = Ok (s, st') -> cont_cns cont ->
       forall bb, In bb (fvs s) -> inG G l bb \/ In bb (fvt cont)) ->
    forall cont st s st', guard_capture false binders w ty cont st = Ok (s, st') -> cont_cns cont ->
    forall bb, In bb (fvs s) -> inG G l bb \/ In bb (fvt cont).
  Proof.
    intros w l G binders ty Hw cont st s st' H Hc bb Hb. apply guard_capture_inv in H.
    destruct H as [[_ H]|[_ [ty0 [a [sta [s0 [Ety [Ha [_ [Hs Es]]]]]]]]]].
    - eapply Hw; eauto.
    - subst s. apply fvs_cut in Hb. destruct Hb as [Hb|Hb]; [|right; exact Hb].
      apply fvt_mu_iff in Hb. destruct Hb as [Hb Hne].
      destruct (Hw _ _ _ _ Hs I bb Hb) as [Hg|Hg]; [left; exact Hg|]. apply fvt_var in Hg. simpl in Hne. congruence.
  Qed.

  Lemma ws_arg_not_cns : forall G y, match y with FVar _ _ (Some FCns) => False | _ => True end ->
    ws_arg G y = ws G y /\ arg_ok p y = (frag p y && is_some (fterm_type y)).
  Proof. intros G y H. destruct y; try (split; reflexivity). destruct chi as [[|]|]; try contradiction; split; reflexivity. Qed.

  Lemma ub_args : forall G args, Forall ubc args ->
    forall st l st', subst_with (fun y => cmp' y) args st = Ok (l, st') ->
    forallb (arg_ok p) args = true -> forallb (ws_arg G) args = true ->
    forall bb, In bb (fva l) -> inG G (flat_map nm args) bb.
  Proof.
    intros G args H. induction H as [|y r Hy Hr IH]; intros st l st' Hs Hf Hw bb Hb.
    - simpl in Hs. apply mret_inv in Hs. destruct Hs; subst. apply fva_nil in Hb. contradiction.
    - apply subst_with_cons_inv in Hs. destruct Hs as [a [st1 [rest [Ha [Hrest Hl]]]]]. subst l.
      simpl in Hf, Hw. apply andb_prop in Hf. destruct Hf as [Hf1 Hf2]. apply andb_prop in Hw. destruct Hw as [Hw1 Hw2].
      apply fva_cons in Hb. destruct Hb as [Hb|Hb].
      + apply compile_arg_inv in Ha. destruct Ha as [[v [ty [ty0 [Ey [Ety [Ea Est]]]]]]|[Hn [ty0 [c [Ety [Ec Ea]]]]]].
        * subst. simpl in Hw1. apply var_ok_inv in Hw1. destruct Hw1 as [ty1 [E1 Hg]]. injection E1 as E1. subst ty1.
          apply fvt_var in Hb. subst bb. split; [exact Hg|]. simpl. left. reflexivity.
        * subst a. destruct (ws_arg_not_cns G y Hn) as [Ew Ef]. rewrite Ew in Hw1. rewrite Ef in Hf1.
          apply andb_prop in Hf1. destruct Hf1 as [Hf1 _].
          eapply inG_incl; [eapply Hy; eauto|]. inc.
      + eapply inG_incl; [eapply IH; eauto|]. inc.
  Qed.

  Lemma ub_clauses : forall G cont1 cls, Forall (fun c => ubw (clause_body c)) cls -> cont_cns cont1 ->
    forall st l st', clauses_with (fun b => wc' b) cont1 cls st = Ok (l, st') ->
    clauses_frag p cls = true ->
    clauses_ws G cls = true ->
    forall bb, In bb (fvc l) -> inG G (flat_map cl_nm cls) bb \/ In bb (fvt cont1).
  Proof.
    intros G cont1 cls H Hc. induction H as [|c r Hy Hr IH]; intros st l st' Hs Hf Hw bb Hb.
    - simpl in Hs. apply mret_inv in Hs. destruct Hs; subst. apply fvc_nil in Hb. contradiction.
    - destruct c as [pl x names ctx body]. apply clauses_with_cons_inv in Hs.
      destruct Hs as [c' [st1 [rest [Ha [Hrest Hl]]]]]. subst l.
      apply compile_clause_inv in Ha. destruct Ha as [body' [Hbody Ec]]. subst c'.
      simpl in Hf, Hw. apply andb_prop in Hf. destruct Hf as [Hf1 Hf2]. apply andb_prop in Hw. destruct Hw as [Hw1 Hw2].
      apply andb_prop in Hf1. destruct Hf1 as [_ Hf1].
      apply fvc_cons_iff in Hb. destruct Hb as [[Hb Hn]|Hb].
      + simpl in Hy. destruct (Hy _ _ _ _ _ Hbody Hf1 Hw1 Hc bb Hb) as [Hg|Hg]; [left | right; exact Hg].
        apply inG_app_inv in Hg; [|exact Hn]. eapply inG_incl; [exact Hg|]. inc.
      + destruct (IH _ _ _ Hrest Hf2 Hw2 bb Hb) as [Hg|Hg]; [left | right; exact Hg].
        eapply inG_incl; [exact Hg|]. inc.
  Qed.

  (* what the guard says of a constructor / destructor argument: a data-typed term of the fragment, not a covariable *)
  Lemma darg_ok_inv : forall y, darg_ok p y = true ->
    is_cns_var y = false /\ frag p y = true /\ tkind p y = false /\ arg_ok p y = true.
  Proof.
    intros y H. unfold darg_ok in H. apply andb_prop in H. destruct H as [H Hd]. apply andb_prop in H. destruct H as [Hc Hf].
    apply negb_true_iff in Hc.
    assert (Hs : is_some (fterm_type y) = true) by (unfold data_ty in Hd; destruct (fterm_type y); [reflexivity | discriminate]).
    assert (Hk : tkind p y = false).
    { unfold tkind, data_ty in *. destruct (fterm_type y); [|reflexivity]. simpl. apply negb_true_iff in Hd. exact Hd. }
    repeat split; try assumption.
    unfold arg_ok. destruct y; try (rewrite Hf, Hs; reflexivity). destruct chi as [[|]|]; try (rewrite Hf, Hs; reflexivity). reflexivity.
  Qed.
  Lemma darg_arg_ok : forall args, forallb (darg_ok p) args = true -> forallb (arg_ok p) args = true.
  Proof. intros args H. rewrite forallb_forall in *. intros y Hy. apply darg_ok_inv. apply H. exact Hy. Qed.

  Lemma ub_coclauses : forall G cls, Forall (fun c => ubw (clause_body c)) cls ->
    forall st l st', coclauses_with (fun b => wc' b) cls st = Ok (l, st') ->
    clauses_frag p cls = true ->
    clauses_ws G cls = true ->
    forall bb, In bb (fvc l) -> inG G (flat_map cl_nm cls) bb.
  Proof.
    intros G cls H. induction H as [|c r Hy Hr IH]; intros st l st' Hs Hf Hw bb Hb.
    - simpl in Hs. apply mret_inv in Hs. destruct Hs; subst. apply fvc_nil in Hb. contradiction.
    - destruct c as [pl x names ctx body]. apply coclauses_with_cons_inv in Hs.
      destruct Hs as [c' [st1 [rest [Ha [Hrest Hl]]]]]. subst l.
      apply compile_coclause_inv in Ha. destruct Ha as [ty0 [a [sta [body' [Ety [Hfr [Hbody Ec]]]]]]]. subst c'.
      simpl in Hf, Hw. apply andb_prop in Hf. destruct Hf as [Hf1 Hf2]. apply andb_prop in Hw. destruct Hw as [Hw1 Hw2].
      apply andb_prop in Hf1. destruct Hf1 as [_ Hf1].
      apply fvc_cons_iff in Hb. destruct Hb as [[Hb Hn]|Hb].
      + simpl in Hy. destruct (Hy _ _ _ _ _ Hbody Hf1 Hw1 I bb Hb) as [Hg|Hg].
        * apply inG_app_inv in Hg; [|intros Hc; apply Hn; apply in_or_app; left; exact Hc].
          eapply inG_incl; [exact Hg|]. inc.
        * apply fvt_var in Hg. exfalso. apply Hn. apply in_or_app. right. left. symmetry. exact Hg.
      + eapply inG_incl; [eapply IH; eauto|]. inc.
  Qed.

  Lemma ub_both : forall t, ubw t /\ ubc t.
  Proof.
    apply wc_cmp_ind.
    - intros t Hv HC G cont st s st' H Hf Hw Hc bb Hb.
      destruct (wc_value_form _ _ _ _ _ _ _ _ Hv H) as [c [Hcmp ->]].
      apply fvs_cut in Hb. destruct Hb as [Hb|Hb]; [left; exact (HC G CI64 _ _ _ (Hcmp CI64) Hf Hw bb Hb) | right; exact Hb].
    - intros t Hs HW G ty st c st' H Hf Hw bb Hb. rewrite (cmp_stmt_form _ _ _ _ _ Hs) in H.
      eapply ub_default; [|exact H|exact Hb]. intros cont st0 s0 st0' Hs0 Hc. eapply HW; eauto.
    - (* FVar *)
      intros v ty chi G ty0' st c st' H Hf Hw bb Hb. rewrite cmp_unfold in H. apply cmp_var_inv in H.
      destruct H as [ty0 [Ety [Es Est]]]. subst. simpl in Hw. apply var_ok_inv in Hw.
      destruct Hw as [ty1 [E1 Hg]]. injection E1 as E1. subst ty1.
      apply fvt_var in Hb. subst bb. split; [exact Hg | simpl; left; reflexivity].
    - (* FLit *)
      intros n G ty0' st c st' H Hf Hw bb Hb. rewrite cmp_unfold in H. unfold cmp_lit in H.
      apply mret_inv in H. destruct H; subst. apply fvt_lit in Hb. contradiction.
    - (* FOp *)
      intros t1 o t2 C1 C2 G ty0' st c st' H Hf Hw bb Hb. rewrite cmp_unfold in H. apply cmp_op_inv in H.
      destruct H as [a [st1 [b [Ha [Hb' Ec]]]]]. subst c. simpl in Hf, Hw.
      apply andb_prop in Hf. destruct Hf as [Hf1 Hf2]. apply andb_prop in Hw. destruct Hw as [Hw1 Hw2].
      apply fvt_op in Hb. destruct Hb as [Hb|Hb].
      + eapply inG_incl; [eapply C1; eauto|]. inc.
      + eapply inG_incl; [eapply C2; eauto|]. inc.
    - (* FIfC *)
      intros s t1 b t2 t3 ty C1 Cb W2 W3 G cont st s0 st' H0 Hf Hw Hc bb Hb. rewrite wc_unfold in H0. apply wc_ifc_inv in H0.
      destruct H0 as [cont1 [st0 [a [sta [b' [stb [t [stt [e [Hsh [Ha [Hbb [Ht [He Er]]]]]]]]]]]]]]. subst s0.
      simpl in Hf, Hw.
      apply andb_prop in Hf. destruct Hf as [Hf Hf3]. apply andb_prop in Hf. destruct Hf as [Hf Hf2].
      apply andb_prop in Hf. destruct Hf as [Hf1 Hfb].
      apply andb_prop in Hw. destruct Hw as [Hw Hw3]. apply andb_prop in Hw. destruct Hw as [Hw Hw2].
      apply andb_prop in Hw. destruct Hw as [Hw1 Hwb].
      assert (Hc1 : cont_cns cont1 /\ forall bb, In bb (fvt cont1) -> In bb (fvt cont)).
      { destruct (cont_is_small cont); [destruct Hsh; subst; auto | eapply share_fvt; eauto]. }
      destruct Hc1 as [Hc1 Hsub].
      apply fvs_ifc in Hb. destruct Hb as [Hb|[Hb|[Hb|Hb]]].
      + left. eapply inG_incl; [eapply C1; eauto|]. inc.
      + left. destruct b as [b0|].
        * destruct Hbb as [b1 [Hb1 Eb]]. subst b'. simpl in Cb.
          eapply inG_incl; [eapply Cb; eauto|]. inc.
        * destruct Hbb as [Eb _]. subst b'. contradiction.
      + destruct (W2 _ _ _ _ _ Ht Hf2 Hw2 Hc1 bb Hb) as [Hg|Hg]; [left | right; apply Hsub; exact Hg].
        eapply inG_incl; [exact Hg|]. inc.
      + destruct (W3 _ _ _ _ _ He Hf3 Hw3 Hc1 bb Hb) as [Hg|Hg]; [left | right; apply Hsub; exact Hg].
        eapply inG_incl; [exact Hg|]. inc.
    - (* FPrint *)
      intros nl t1 t2 ty C1 W2 G cont st s0 st' H0 Hf Hw Hc bb Hb. rewrite wc_unfold in H0. apply wc_print_inv in H0.
      destruct H0 as [a [st1 [next [Ha [Hn Es]]]]]. subst s0. simpl in Hf, Hw.
      apply andb_prop in Hf. destruct Hf as [Hf1 Hf2]. apply andb_prop in Hw. destruct Hw as [Hw1 Hw2].
      apply fvs_print in Hb. destruct Hb as [Hb|Hb].
      + left. eapply inG_incl; [eapply C1; eauto|]. inc.
      + destruct (W2 _ _ _ _ _ Hn Hf2 Hw2 Hc bb Hb) as [Hg|Hg]; [left | right; exact Hg].
        eapply inG_incl; [exact Hg|]. inc.
    - (* FLet *)
      intros v vty t1 t2 ty W1 C1 W2 G cont0 st0 s00 st0' H00 Hf Hw Hc0. rewrite wc_unfold in H00. simpl in Hf, Hw.
      apply andb_prop in Hf. destruct Hf as [Hf1 Hf2].
      apply andb_prop in Hw. destruct Hw as [Hw1 Hw2].
      revert cont0 st0 s00 st0' H00 Hc0. apply ub_guard.
      intros cont st s0 st' H0 Hc bb Hb.
      assert (Hbody : forall body st1, wc' t2 cont st = Ok (body, st1) ->
                forall bb, In bb (fvt (CMu CCns (new_id v) body (compile_ty vty))) ->
                inG G (nm (FLet v vty t1 t2 ty)) bb \/ In bb (fvt cont)).
      { intros body st1 Hbody bb0 Hg. apply fvt_mu_iff in Hg. destruct Hg as [Hg Hne]. simpl in Hne.
        destruct (W2 _ _ _ _ _ Hbody Hf2 Hw2 Hc bb0 Hg) as [Hg2|Hg2]; [left | right; exact Hg2].
        apply inG_cons_inv in Hg2; [|exact Hne]. eapply inG_incl; [exact Hg2|]. inc. }
      destruct (ty_is_codata (codata_of p) (compile_ty vty)) eqn:Hcd.
      + apply wc_let_inv_codata in H0; [|exact Hcd]. destruct H0 as [body [st1 [pb [Hbody0 [Hpb Es]]]]]. subst s0.
        apply fvs_cut in Hb. destruct Hb as [Hb|Hb].
        * left. eapply inG_incl; [eapply C1; eauto|]. inc.
        * eapply Hbody; eauto.
      + apply wc_let_inv in H0; [|exact Hcd]. destruct H0 as [body [st1 [Hbody0 Hbound]]].
        destruct (W1 _ _ _ _ _ Hbound Hf1 Hw1 eq_refl bb Hb) as [Hg|Hg].
        * left. eapply inG_incl; [exact Hg|]. inc.
        * eapply Hbody; eauto.
    - (* FCall *)
      intros f args ret HA G cont st s0 st' H0 Hf Hw Hc bb Hb. rewrite wc_unfold in H0. apply wc_call_inv in H0.
      destruct H0 as [args' [ret0 [Hargs [Eret Es]]]]. subst s0. simpl in Hf, Hw.
      apply andb_prop in Hf. destruct Hf as [_ Hf].
      apply fvs_call in Hb. apply fva_app in Hb. destruct Hb as [Hb|Hb].
      + left. eapply (ub_args G args HA); eauto.
      + right. apply fva_cons in Hb. destruct Hb as [Hb|Hb]; [exact Hb | apply fva_nil in Hb; contradiction].
    - (* FCtor *)
      intros x args ty HA G ty0' st c st' H0 Hf Hw bb Hb. rewrite cmp_unfold in H0. apply cmp_ctor_inv in H0.
      destruct H0 as [args' [ty0 [Hargs [Ety Ec]]]]. subst c. simpl in Hf, Hw.
      apply darg_arg_ok in Hf.
      apply fvt_xtor in Hb. eapply (ub_args G args HA); eauto.
    - (* FDtor *)
      intros t x targs args ty Ws HA G cont st s0 st' H0 Hf Hw Hc bb Hb. rewrite wc_unfold in H0. apply wc_dtor_inv in H0.
      destruct H0 as [args' [st1 [sty0 [Hargs [Esty Hscrut]]]]]. simpl in Hf, Hw.
      apply andb_prop in Hf. destruct Hf as [Hf _]. apply andb_prop in Hf. destruct Hf as [Hfs Hfa].
      apply andb_prop in Hw. destruct Hw as [Hws Hwa].
      apply darg_arg_ok in Hfa.
      destruct (Ws _ _ _ _ _ Hscrut Hfs Hws I bb Hb) as [Hg|Hg].
      + left. eapply inG_incl; [exact Hg|]. inc.
      + apply fvt_xtor in Hg. apply fva_app in Hg. destruct Hg as [Hg|Hg].
        * left. eapply inG_incl; [eapply (ub_args G args HA); eauto|]. inc.
        * right. apply fva_cons in Hg. destruct Hg as [Hg|Hg]; [exact Hg | apply fva_nil in Hg; contradiction].
    - (* FCase *)
      intros t targs cls ty Ws HB G cont0 st0 s00 st0' H00 Hf Hw Hc0. rewrite wc_unfold in H00. simpl in Hf, Hw.
      apply andb_prop in Hf. destruct Hf as [Hf1 Hf2]. apply andb_prop in Hf1. destruct Hf1 as [Hf1 _].
      apply andb_prop in Hw. destruct Hw as [Hw1 Hw2].
      revert cont0 st0 s00 st0' H00 Hc0. apply ub_guard.
      intros cont st s0 st' H0 Hc bb Hb. apply wc_case_inv in H0.
      destruct H0 as [cont1 [st0 [cls' [st1 [sty0 [Hsh [Hcls [Esty Hscrut]]]]]]]].
      assert (Hc1 : cont_cns cont1 /\ forall bb, In bb (fvt cont1) -> In bb (fvt cont)).
      { destruct (Nat.leb (List.length cls) 1 || cont_is_small cont);
          [destruct Hsh; subst; auto | eapply share_fvt; eauto]. }
      destruct Hc1 as [Hc1 Hsub].
      destruct (Ws _ _ _ _ _ Hscrut Hf1 Hw1 I bb Hb) as [Hg|Hg].
      + left. eapply inG_incl; [exact Hg|]. inc.
      + apply fvt_xcase in Hg.
        destruct (ub_clauses G cont1 cls HB Hc1 _ _ _ Hcls Hf2 Hw2 bb Hg) as [Hg2|Hg2]; [left | right; apply Hsub; exact Hg2].
        eapply inG_incl; [exact Hg2|]. intros z Hz. simpl. apply in_or_app. right. exact Hz.
    - (* FNew *)
      intros cls ty HB G ty0' st c st' H0 Hf Hw bb Hb. rewrite cmp_unfold in H0. apply cmp_new_inv in H0.
      destruct H0 as [cls' [ty0 [Hcls [Ety Ec]]]]. subst c. simpl in Hf, Hw.
      apply fvt_xcase in Hb. eapply (ub_coclauses G cls HB); eauto.
    - (* FLabel *)
      intros l t ty W G ty0' st c st' H0 Hf Hw bb Hb. rewrite cmp_unfold in H0. apply cmp_label_inv in H0.
      destruct H0 as [ty0 [s0 [Ety [Hs Ec]]]]. subst c ty. simpl in Hf, Hw.
      apply andb_prop in Hf. destruct Hf as [_ Hf].
      apply fvt_mu_iff in Hb. destruct Hb as [Hb Hne]. simpl in Hne.
      destruct (W _ _ _ _ _ Hs Hf Hw I bb Hb) as [Hg|Hg].
      + apply inG_cons_inv in Hg; [|exact Hne]. eapply inG_incl; [exact Hg|]. inc.
      + apply fvt_var in Hg. congruence.
    - (* FGoto *)
      intros l t ty W G cont st s0 st' H0 Hf Hw Hc bb Hb. rewrite wc_unfold in H0. apply wc_goto_inv in H0.
      destruct H0 as [ty0 [Ety Hs]]. simpl in Hf, Hw. apply andb_prop in Hw. destruct Hw as [Hw1 Hw2].
      left. destruct (W _ _ _ _ _ Hs Hf Hw2 I bb Hb) as [Hg|Hg].
      + eapply inG_incl; [exact Hg|]. inc.
      + apply fvt_var in Hg. subst bb. apply var_ok_inv in Hw1. destruct Hw1 as [ty1 [E1 Hg]].
        rewrite Ety in E1. injection E1 as E1. subst ty1. split; [exact Hg | simpl; left; reflexivity].
    - (* FExit *)
      intros t ty C G cont st s0 st' H0 Hf Hw Hc bb Hb. rewrite wc_unfold in H0. apply wc_exit_inv in H0.
      destruct H0 as [a [ty0 [Ha [Ety Es]]]]. subst s0. simpl in Hf, Hw. left.
      apply fvs_exit in Hb. eapply C; eauto.
    - (* FParen *)
      intros t W C. split.
      + intros G cont st s0 st' H0 Hf Hw Hc bb Hb. rewrite wc_unfold in H0. eapply W; eauto.
      + intros G ty0' st c st' H0 Hf Hw bb Hb. rewrite cmp_unfold in H0. eapply C; eauto.
  Qed.

  Definition ub_wc (t : fterm) := proj1 (ub_both t).
  Definition ub_cmp (t : fterm) := proj2 (ub_both t).
End UB.
