(* C19: the cost model of the AArch64 back end (Model/A64.v), discharged:
       a64_K = 40 + 15 * FIELDS_PER_BLOCK
   (single operations <= 14; store of n fields <= (1 + n) * (29 + 15 * FIELDS_PER_BLOCK), acquire_block =
   18 + 14 * FIELDS_PER_BLOCK; load <= 38 * (1 + n); print <= 11 + 4 * context; parallel moves
   <= 8 * new + 4 * old).  Same structure as Proof/SizeX86.v. *)
From Coq Require Import String List ZArith NArith Bool Lia.
From SCC Require Import Base.Sexp Lang.AxSyn Lang.AxSize Model.ParMoves Model.Backend Model.A64 Model.Linearize Model.LinCheck
     Proof.LinBasics Proof.SubstGraph Proof.SubstBackends Proof.SizeLin Proof.SizeCodegen Proof.SizeExchange Proof.SizeCodegenWf.
From SCC Require Model.SizeWf.
Import ListNotations.
Open Scope list_scope.
Open Scope N_scope.
Local Arguments N.add : simpl never.
Local Arguments N.mul : simpl never.
Local Arguments N.sub : simpl never.
Local Arguments N.of_nat : simpl never.
Local Arguments len : simpl never.

Notation FPB := FIELDS_PER_BLOCK.
Notation a64_K := SizeWf.a64_K.

Lemma len_nseq : forall s l, len (nseq s l) = l.
Proof. intros. unfold nseq, len. rewrite map_length, seq_length. lia. Qed.

Lemma l_move_from_register : forall t r, len (move_from_register t r) = 1.
Proof. intros t r; destruct t; reflexivity. Qed.
Lemma l_move_to_register : forall r t, len (move_to_register r t) = 1.
Proof. intros r t; destruct t; reflexivity. Qed.
Lemma l_compare : forall a b, len (compare a b) <= 3.
Proof. intros a b; destruct a, b; cbn [compare]; lens; lia. Qed.
Lemma l_compare_immediate : forall t i, len (compare_immediate t i) <= 2.
Proof. intros t i; destruct t; cbn [compare_immediate]; lens; lia. Qed.
Lemma l_jump : forall t, len (a_jump t) <= 2.
Proof. intros t; destruct t; cbn [a_jump]; lens; lia. Qed.
Lemma l_imm_pieces : forall r v inv ig fd is, len (imm_pieces r v inv ig fd is) <= len is.
Proof.
  intros r v inv ig fd is. revert fd. induction is as [|i rest IH]; intros fd; cbn [imm_pieces]; [lens; lia|].
  destruct (Z.eqb (halfword v i) ig); [specialize (IH fd); lens; lia|].
  destruct fd; [|destruct inv]; lens; specialize (IH true); lia.
Qed.
Lemma l_imm_code : forall r v, len (imm_code r v) <= 4.
Proof.
  intros r v. unfold imm_code. destruct (Z.eqb v 0); [lens; lia|]. destruct (Z.eqb v (-1)); [lens; lia|].
  eapply N.le_trans; [apply l_imm_pieces|]. lens. lia.
Qed.
Lemma l_load_immediate : forall t i, len (a_load_immediate t i) <= 5.
Proof. intros t i; destruct t as [r|p]; cbn [a_load_immediate]; lens; [pose proof (l_imm_code r i) | pose proof (l_imm_code TEMP i)]; lia. Qed.
Lemma l_load_label : forall t l, len (a_load_label t l) <= 2.
Proof. intros t l; destruct t; cbn [a_load_label]; lens; lia. Qed.
Lemma l_add_offset : forall r i, len (add_offset r i) <= 5.
Proof. intros r i. unfold add_offset. destruct (add_imm_fits i); lens; [lia|]. pose proof (l_imm_code TEMP2 i). lia. Qed.
Lemma l_add_and_jump : forall t i, len (a_add_and_jump t i) <= 7.
Proof. intros t i; destruct t as [r|p]; cbn [a_add_and_jump]; lens; [pose proof (l_add_offset r i)|pose proof (l_add_offset TEMP i)]; lia. Qed.
Lemma l_mov : forall t s, len (a_mov t s) <= 2.
Proof. intros t s; destruct t, s; cbn [a_mov move_from_register move_to_register]; lens; lia. Qed.
Lemma l_store_temporary : forall t f, len (a_store_temporary t f) <= 2.
Proof. intros t f; destruct t; cbn [a_store_temporary]; lens; lia. Qed.
Lemma l_restore_temporary : forall t f, len (a_restore_temporary t f) <= 2.
Proof. intros t f; destruct t; cbn [a_restore_temporary]; lens; lia. Qed.
Lemma l_op : forall (f : areg -> areg -> areg -> list acode) t s1 s2,
  (forall a b c, len (f a b c) <= 5) -> len (a_op f t s1 s2) <= 8.
Proof.
  intros f t s1 s2 H. unfold a_op. destruct t, s1, s2; lens;
    repeat match goal with |- context [len (f ?a ?b ?c)] => pose proof (H a b c); generalize dependent (len (f a b c)); intros end; lia.
Qed.
Lemma l_rem : forall a b c, len (r_rem a b c) <= 5.
Proof. intros. unfold r_rem. destruct (areg_eqb c TEMP2); [destruct (areg_eqb a TEMP)|]; lens; lia. Qed.
Lemma l_arith : forall o t a b, len (a_arith o t a b) <= 8.
Proof.
  intros o t a b. destruct o; cbn [a_arith]; apply l_op; intros; first [apply l_rem | unfold r_add, r_sub, r_mul, r_div; lens; lia].
Qed.

Lemma l_save : forall fb regs, len (save_caller_save_registers fb regs) <= len regs + 1.
Proof.
  intros fb regs. unfold save_caller_save_registers. lens. rewrite !len_map.
  pose proof (len_combine_r (nseq 0 (N.of_nat (backup_used fb regs))) (firstn (backup_used fb regs) regs)).
  pose proof (len_firstn_skipn (backup_used fb regs) regs).
  destruct (Nat.eqb _ 0); lens; [lia|]. rewrite len_map.
  pose proof (len_combine_r (nseq 0 (N.of_nat (List.length regs - backup_used fb regs))) (skipn (backup_used fb regs) regs)).
  lia.
Qed.
Lemma l_restore : forall fb regs, len (restore_caller_save_registers fb regs) <= len regs + 1.
Proof.
  intros fb regs. unfold restore_caller_save_registers. lens. rewrite !len_map.
  pose proof (len_combine_r (nseq 0 (N.of_nat (backup_used fb regs))) (firstn (backup_used fb regs) regs)).
  pose proof (len_firstn_skipn (backup_used fb regs) regs).
  destruct (Nat.eqb _ 0); lens; [lia|]. rewrite len_map, len_rev.
  pose proof (len_combine_r (nseq 0 (N.of_nat (List.length regs - backup_used fb regs))) (skipn (backup_used fb regs) regs)).
  lia.
Qed.
Lemma l_csr : forall c, len (snd (caller_save_registers_info c)) <= 3 + 2 * len c.
Proof.
  intros c. unfold caller_save_registers_info. cbn [snd].
  set (taken := firstn _ c).
  assert (G : forall (l : list (N * binding)),
    len (flat_map (fun ob : N * binding => let '(offset, b) := ob in
            match bchi b with
            | Ext => [CALLER_SAVE_FIRST + 2 * offset + 1]
            | _ => [CALLER_SAVE_FIRST + 2 * offset; CALLER_SAVE_FIRST + 2 * offset + 1]
            end) l) <= 2 * len l).
  { induction l as [|[o b] r IH]; [cbn [flat_map]; lens; lia|]. cbn [flat_map]. lens. destruct (bchi b); lens; lia. }
  lens.
  match goal with |- context [len (flat_map ?f ?l)] => pose proof (G l) as HG end.
  assert (len (combine (nseq 0 (N.of_nat (List.length taken))) taken) <= len taken) by apply len_combine_r.
  assert (len taken <= len c) by (unfold taken; apply len_firstn).
  destruct (N.leb REGISTER_NUM _); lens; lia.
Qed.
Lemma l_print : forall nl t c, len (a_print nl t c) <= 11 + 4 * len c.
Proof.
  intros nl t c. unfold a_print. pose proof (l_csr c) as H.
  destruct (caller_save_registers_info c) as [fb regs]. cbn [snd] in H. lens.
  pose proof (l_save fb regs). pose proof (l_restore fb regs).
  destruct t; lens; rewrite ?l_move_to_register; lia.
Qed.

Lemma l_ifz : forall cond th el lc, len (fst (if_zero_then_else cond th el lc)) = 5 + len th + len el.
Proof. intros. unfold if_zero_then_else. cbn [fst]. lens. lia. Qed.
Lemma l_skip : forall cnd body lc, len (fst (skip_if_zero cnd body lc)) = 3 + len body.
Proof. intros. unfold skip_if_zero. cbn [fst]. lens. lia. Qed.
Lemma l_erase_valid : forall r lc, len (fst (erase_valid_object r lc)) = 9.
Proof. intros. unfold erase_valid_object. rewrite l_ifz. reflexivity. Qed.
Lemma l_erase_block : forall t lc, len (fst (a_erase_block t lc)) <= 14.
Proof.
  intros [r|p] lc; cbn [a_erase_block].
  - pose proof (l_erase_valid r lc) as H. destruct (erase_valid_object r lc) as [c lc1]. cbn [fst] in H.
    rewrite l_skip. lens. lia.
  - pose proof (l_erase_valid TEMP lc) as H. destruct (erase_valid_object TEMP lc) as [c lc1]. cbn [fst] in H.
    match goal with |- context [skip_if_zero TEMP ?b lc1] => pose proof (l_skip TEMP b lc1) as H2; destruct (skip_if_zero TEMP b lc1) as [c2 lc2] end.
    cbn [fst] in *. revert H2. lens. intros H2. lia.
Qed.
Lemma l_erase_block_temp : forall lc, len (fst (a_erase_block (AR TEMP) lc)) = 13.
Proof.
  intros lc. cbn [a_erase_block].
  pose proof (l_erase_valid TEMP lc) as H. destruct (erase_valid_object TEMP lc) as [c lc1]. cbn [fst] in H.
  rewrite l_skip. lens. lia.
Qed.
Lemma l_share_block : forall t n lc, len (fst (a_share_block_n t n lc)) <= 7.
Proof.
  intros [r|p] n lc; cbn [a_share_block_n].
  - rewrite l_skip. unfold share_code. lens. lia.
  - pose proof (l_skip TEMP (share_code TEMP n) lc) as H. destruct (skip_if_zero TEMP (share_code TEMP n) lc) as [c lc1].
    cbn [fst] in *. unfold share_code in H. revert H. lens. intros H. lia.
Qed.

Lemma l_erase_fields : forall r lc, len (fst (erase_fields r lc)) = 14 * FPB.
Proof.
  intros r lc. unfold erase_fields.
  assert (G : forall l c lc0,
    len (fst (fold_left (fun (acc : list acode * N) (offset : N) =>
               let '(c, lc) := acc in
               let '(c1, lc1) := a_erase_block (AR TEMP) lc in
               (c ++ [LDR TEMP r (field_offset Fst offset)] ++ c1, lc1)) l (c, lc0))) = len c + 14 * len l).
  { induction l as [|o l IH]; intros c lc0; [cbn [fold_left fst]; lens; lia|].
    cbn [fold_left]. pose proof (l_erase_block_temp lc0) as H. destruct (a_erase_block (AR TEMP) lc0) as [c1 lc1]. cbn [fst] in H.
    rewrite IH. lens. lia. }
  rewrite G, len_nseq. lens. lia.
Qed.
Lemma l_acquire : forall t lc, len (fst (acquire_block t lc)) <= 18 + 14 * FPB.
Proof.
  intros t lc. unfold acquire_block.
  pose proof (l_erase_fields HEAP lc) as H1. destruct (erase_fields HEAP lc) as [ef lc1]. cbn [fst] in H1.
  match goal with |- context [if_zero_then_else FREE ?a ?b lc1] =>
    pose proof (l_ifz FREE a b lc1) as H2; destruct (if_zero_then_else FREE a b lc1) as [inner lc2] end.
  cbn [fst] in H2.
  match goal with |- context [if_zero_then_else HEAP ?a ?b lc2] =>
    pose proof (l_ifz HEAP a b lc2) as H3; destruct (if_zero_then_else HEAP a b lc2) as [outer lc3] end.
  cbn [fst] in *. destruct t; revert H2 H3; lens; intros H2 H3; lia.
Qed.
Lemma l_store_field : forall n c b o code, store_field n c b o = Ok code -> len code <= 2.
Proof. intros n c b o code H. unfold store_field in H. bind H. inversion H; subst. destruct x; lens; lia. Qed.
Lemma l_load_field : forall n c b o code, load_field n c b o = Ok code -> len code <= 2.
Proof. intros n c b o code H. unfold load_field in H. bind H. inversion H; subst. destruct x; lens; lia. Qed.
Lemma l_store_zeros : forall n b, len (store_zeros n b) = n.
Proof.
  intros n b. unfold store_zeros. rewrite <- (len_nseq 0 n) at 2. induction (nseq 0 n) as [|x l IH]; [reflexivity|].
  cbn [flat_map]. lens. unfold store_zero at 1. lens. lia.
Qed.
Lemma l_store_value : forall b rem blk o code, store_value b rem blk o = Ok code -> len code <= 4.
Proof.
  intros b rem blk o code H. unfold store_value in H. bind H. apply l_store_field in E.
  destruct (bchi b).
  - bind H. inversion H; subst. apply l_store_field in E0. lens. lia.
  - bind H. inversion H; subst. apply l_store_field in E0. lens. lia.
  - inversion H; subst. lens. unfold store_zero. lens. lia.
Qed.
Lemma l_store_values : forall l rem blk ff code, store_values l rem blk ff = Ok code -> len code <= 4 * len l + ff.
Proof.
  induction l as [|b l IH]; intros rem blk ff code H; cbn [store_values] in H.
  - inversion H; subst. rewrite l_store_zeros. lens. lia.
  - bind H. bind H. inversion H; subst. apply l_store_value in E. apply IH in E0. lens. lia.
Qed.

(* one block of a store: the link field (<= 2), the padding zeros (<= FPB) and acquire_block (<= 18 + 14 * FPB) *)
Definition store_unit : N := 20 + 15 * FPB.
Lemma l_store_fields : forall fuel ts rem bp lc code lc',
  store_fields fuel ts rem bp lc = Ok (code, lc') -> len code <= N.of_nat fuel * store_unit + 4 * len ts + 5.
Proof.
  induction fuel as [|f IH]; intros ts rem bp lc code lc' H; [discriminate|].
  rewrite Nat2N.inj_succ, N.mul_succ_l.
  destruct ts as [|b0 ts0].
  - cbn [store_fields] in H. destruct bp.
    + bind H. inversion H; subst. pose proof (l_load_immediate x 0). lia.
    + inversion H; subst. lens. lia.
  - cbn [store_fields] in H. remember (b0 :: ts0) as ts eqn:Ets. clear Ets b0 ts0.
    bind H. rename x into c0. bind H. rename x into c1. bind H. rename x into t.
    set (cap := FPB - bp_n bp) in *.
    set (rl := if N.leb (N.of_nat (List.length ts)) cap then 0 else N.of_nat (List.length ts) - cap) in *.
    pose proof (l_acquire t lc) as HA. destruct (acquire_block t lc) as [c2 lc2]. cbn [fst] in HA.
    bind H. destruct x as [c3 lc3]. inversion H; subst; clear H.
    apply IH in E2. apply l_store_values in E0.
    assert (H0 : len c0 <= 2).
    { destruct bp; [inversion E; subst; lens; lia | eapply l_store_field; eauto]. }
    assert (Hcap : cap <= FPB) by (unfold cap; lia).
    pose proof (len_rev (skipn (N.to_nat rl) ts)) as Hrev.
    pose proof (len_firstn_skipn (N.to_nat rl) ts).
    lens. unfold store_unit in *. lia.
Qed.
Lemma l_store : forall a r lc code lc', a_store a r lc = Ok (code, lc') -> len code <= (29 + 15 * FPB) * (1 + len a).
Proof.
  intros a r lc code lc' H. unfold a_store in H. apply l_store_fields in H.
  rewrite Nat2N.inj_succ in H. fold (len a) in H. unfold store_unit in H. lia.
Qed.

Lemma l_load_value : forall b ex blk o m lc code lc', load_value b ex blk o m lc = Ok (code, lc') -> len code <= 11.
Proof.
  intros b ex blk o m lc code lc' H. unfold load_value in H. bind H. apply l_load_field in E.
  destruct (bchi b); [| |inversion H; subst; lia].
  (* Prd and Cns alike *)
  all: bind H; bind H; apply l_load_field in E0; destruct m; [inversion H; subst; lens; lia|].
  all: match type of H with context [a_share_block_n ?t ?n ?l] =>
         pose proof (l_share_block t n l) as HS; destruct (a_share_block_n t n l) as [c3 lc1] end.
  all: cbn [fst] in HS; inversion H; subst; lens; lia.
Qed.
Lemma l_load_values : forall l ex blk ff m lc code lc', load_values l ex blk ff m lc = Ok (code, lc') -> len code <= 11 * len l.
Proof.
  induction l as [|b l IH]; intros ex blk ff m lc code lc' H; cbn [load_values] in H.
  - inversion H; subst. lens. lia.
  - bind H. destruct x as [c1 lc1]. bind H. destruct x as [c2 lc2]. inversion H; subst.
    apply l_load_value in E. apply IH in E0. lens. lia.
Qed.
Lemma l_release : forall r, len (release_block r) = 2.
Proof. reflexivity. Qed.
Lemma l_load_fields : forall fuel tl ex bp m rf lc code rf' lc',
  load_fields fuel tl ex bp m rf lc = Ok (code, rf', lc') -> len code <= N.of_nat fuel * 7 + 11 * len tl.
Proof.
  induction fuel as [|f IH]; intros tl ex bp m rf lc code rf' lc' H; [discriminate|].
  rewrite Nat2N.inj_succ, N.mul_succ_l.
  destruct tl as [|b0 tl0].
  - cbn [load_fields] in H. inversion H; subst. lens. lia.
  - cbn [load_fields] in H. remember (b0 :: tl0) as tl eqn:Etl. clear Etl b0 tl0.
    set (cap := FPB - bp_n bp) in *.
    set (rl := if N.leb (N.of_nat (List.length tl)) cap then 0 else N.of_nat (List.length tl) - cap) in *.
    bind H. destruct x as [[c0 freed0] lc0]. bind H. rename x into mb.
    apply IH in E.
    pose proof (len_rev (skipn (N.to_nat rl) tl)) as Hrev.
    pose proof (len_firstn_skipn (N.to_nat rl) tl).
    destruct mb as [mr|mp].
    + bind H. rename x into c2. bind H. destruct x as [c3 lc3]. inversion H; subst; clear H.
      apply l_load_values in E2.
      assert (len c2 <= 2) by (destruct bp; [inversion E1; subst; lens; lia | eapply l_load_field; eauto]).
      assert (len (match m with Release => release_block mr | Share => [] end) <= 2) by (destruct m; [rewrite l_release|lens]; lia).
      lens. lia.
    + bind H. rename x into c2. bind H. destruct x as [c3 lc3]. inversion H; subst; clear H.
      apply l_load_values in E2.
      assert (len c2 <= 2) by (destruct bp; [inversion E1; subst; lens; lia | eapply l_load_field; eauto]).
      assert (len (match m with Release => release_block TEMPORARY_TEMP | Share => [] end) <= 2) by (destruct m; [rewrite l_release|lens]; lia).
      assert (len (if freed0 then [] else [STR TEMPORARY_TEMP SP (stack_offset SPILL_TEMP)]) <= 1) by (destruct freed0; lens; lia).
      assert (len (match bp with Last => [LDR TEMPORARY_TEMP SP (stack_offset SPILL_TEMP)] | Other => [] end) <= 1) by (destruct bp; lens; lia).
      lens. lia.
Qed.
Lemma l_load_register : forall blk tl ex lc code lc', load_register blk tl ex lc = Ok (code, lc') -> len code <= 36 * (1 + len tl).
Proof.
  intros blk tl ex lc code lc' H. unfold load_register in H.
  bind H. destruct x as [[th f1] lc1]. bind H. destruct x as [[el f2] lc2].
  apply l_load_fields in E. apply l_load_fields in E0. rewrite Nat2N.inj_succ in *. fold (len tl) in *.
  match type of H with Ok ?p = _ => assert (HI : fst p = code) by (inversion H; reflexivity) end.
  rewrite <- HI, l_ifz. lens. lia.
Qed.
Lemma l_load : forall a r lc code lc', a_load a r lc = Ok (code, lc') -> len code <= 38 * (1 + len a).
Proof.
  intros a r lc code lc' H. unfold a_load in H. destruct a as [|b0 a0]; [inversion H; subst; lens; lia|].
  remember (b0 :: a0) as a. clear Heqa b0 a0.
  bind H. destruct x as [mr|mp].
  - bind H. destruct x as [c1 lc1]. cbn [fst snd] in H. inversion H; subst. apply l_load_register in E0. lens. lia.
  - bind H. destruct x as [c1 lc1]. cbn [fst snd] in H. inversion H; subst. apply l_load_register in E0. lens. lia.
Qed.

Lemma a64_K_ge : 40 <= a64_K.
Proof. unfold SizeWf.a64_K. lia. Qed.

Lemma a64_with_ok : forall mark, backend_ok (a64_backend_with mark).
Proof.
  intros mark. destruct a64_backend_ok as [A1 A2 A3 A4]. split; [exact A1 | exact A2 | exact A3 | exact A4].
Qed.

Section A64.
Variable mark : ctx -> list acode.
Hypothesis mark_len : forall c, len (mark c) <= 1.
Let B := a64_backend_with mark.

Lemma a64_exchange : forall re c code, NoDup (ids c) -> NoDup (SizeWf.new_ids_of re) ->
  code_exchange B (transpose re c) c (map fst re) = Ok code -> len code <= a64_K * (1 + len c + len re).
Proof.
  intros re c code N1 N2 H.
  pose proof (exchange_len B (a64_with_ok mark) 2 l_mov l_store_temporary l_restore_temporary c re code N1 N2 H) as G.
  pose proof a64_K_ge. nia.
Qed.

Theorem a64_cost_model_wf : cost_model_wf B a64_K.
Proof.
  pose proof a64_K_ge as HK. unfold cost_model_wf.
  cbn [B a64_backend_with b_mark b_jump b_jump_label b_jump_label_fixed b_jcc2 b_jcc1
    b_load_immediate b_load_label b_add_and_jump b_arith b_mov b_print b_erase b_share_n b_store b_load].
  repeat split.
  - lia.
  - intros c. pose proof (mark_len c). lia.
  - intros t. pose proof (l_jump t). lia.
  - intros l. lens. lia.
  - intros l. lens. lia.
  - intros so a b l. lens. pose proof (l_compare a b). lia.
  - intros so a l. lens. pose proof (l_compare_immediate a 0). lia.
  - intros t z. pose proof (l_load_immediate t z). lia.
  - intros t l. pose proof (l_load_label t l). lia.
  - intros t z. pose proof (l_add_and_jump t z). lia.
  - intros o a b c. pose proof (l_arith o a b c). lia.
  - intros a b. pose proof (l_mov a b). lia.
  - intros nl t c. pose proof (l_print nl t c). nia.
  - intros t lc. pose proof (l_erase_block t lc). lia.
  - intros t n lc. pose proof (l_share_block t n lc). lia.
  - intros a r lc code lc' H. apply l_store in H. unfold SizeWf.a64_K. nia.
  - intros a r lc code lc' H. apply l_load in H. nia.
  - exact a64_exchange.
Qed.

Theorem a64_translate_size : forall types ds lc code lc',
  SizeWf.sub_wf_defs ds = true ->
  translate B types ds lc = Ok (code, lc') -> len code <= a64_K * cg_bound_defs ds.
Proof. apply translate_size_wf. exact a64_cost_model_wf. Qed.
End A64.

Lemma l_move_arguments : forall n code, move_arguments n = Ok code -> len code <= 7.
Proof.
  assert (G : forall n code, move_arguments n = Ok code -> len code = N.of_nat n /\ (n <= 7)%nat).
  { induction n as [|m IH]; intros code H; cbn [move_arguments] in H; [inversion H; subst; split; [reflexivity|lia]|].
    destruct (Nat.ltb 7 (S m)) eqn:E; [discriminate|]. apply Nat.ltb_ge in E.
    bind H. inversion H; subst. destruct (IH _ eq_refl) as [L _]. lens. split; lia. }
  intros n code H. apply G in H. lia.
Qed.

(* the routine is the translated definitions plus preamble, setup, argument moves and cleanup *)
Lemma a64_compile_routine : forall p lc r n lc', a64_compile p lc = Ok (r, n, lc') ->
  exists c1 lc1, translate (a64_backend_with (fun _ => [])) (ptypes p) (pdefs p) lc = Ok (c1, lc1) /\
                 len r <= SizeWf.a64_routine_overhead + len c1.
Proof.
  intros p lc r n lc' H. unfold a64_compile, a64_compile_with in H.
  destruct (compile (a64_backend_with (fun _ => [])) p lc) as [[[is n0] lc0]|e] eqn:E; [|discriminate]. cbn [rbind] in H.
  destruct (into_aarch64_routine is n0) as [rt|e] eqn:E0; [|discriminate]. cbn [rbind] in H. inversion H; subst; clear H.
  unfold compile in E. destruct (pdefs p) as [|d0 ds]; [discriminate|].
  destruct (translate (a64_backend_with (fun _ => [])) (ptypes p) (d0 :: ds) lc) as [[c1 lc1]|e] eqn:E1; [|discriminate].
  exists c1, lc1. split; [reflexivity|]. cbn [rbind fst snd] in E. inversion E; subst; clear E.
  unfold into_aarch64_routine in E0. destruct (setup (List.length (dctx d0))) as [st|e] eqn:E2; [|discriminate].
  cbn [rbind] in E0. inversion E0; subst; clear E0.
  unfold setup in E2. destruct (move_arguments (List.length (dctx d0))) as [ma|e] eqn:E3; [|discriminate].
  cbn [rbind] in E2. inversion E2; subst; clear E2. apply l_move_arguments in E3.
  unfold SizeWf.a64_routine_overhead. lens. unfold preamble, cleanup. lens. lia.
Qed.

Theorem a64_compile_size : forall p lc r n lc',
  SizeWf.sub_wf_prog p = true -> a64_compile p lc = Ok (r, n, lc') -> len r <= SizeWf.a64_bound p.
Proof.
  intros p lc r n lc' HW H. destruct (a64_compile_routine _ _ _ _ _ H) as (c1 & lc1 & T & L).
  apply (a64_translate_size (fun _ => [])) in T; [|intros; lens; lia|exact HW]. unfold SizeWf.a64_bound. lia.
Qed.
