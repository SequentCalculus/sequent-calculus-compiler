(* Property C12, typing links between the stages: a well-typed Core program has none of the shapes on which
   focusing panics (wt_core c -> focus_wf c; with C03's focus_total_thm focusing is total on well-typed programs);
   the repaired capture defect of fun2core as a typing defect (witness about [compile_prog_before_fix]); the
   composition of all stages with the three typing links as hypotheses. *)
From Coq Require Import List ZArith NArith String Bool Lia.
From SCC Require Import Base.Sexp Lang.SynUtil Lang.SynInd Lang.CoreSyn Sem.FsCheck Sem.CoreCheck Model.FocusCheck
     Proof.CoreTyRules.
From SCC Require Import Lang.FunSyn Model.Check Sem.FunTyping Model.Fun2Core Model.WtDefs.
From SCC Require Import Lang.AxSyn Model.Shrink Model.Linearize Model.LinCheck Model.Capacity Model.X86 Model.A64 Model.RV.
From SCC Require Sem.AxCheck.
From SCC Require Import Proof.LinearizeProof Proof.AxToLin Proof.CodegenTotal Proof.CodegenX86 Proof.CodegenA64 Proof.CodegenRV.
(* last, so that an unqualified [Ok] is the one of the back-end passes *)
From SCC Require Import Model.Backend Model.Focus Proof.ShrinkProof Proof.FocusExtra.
Import ListNotations.
Open Scope list_scope.

Section FocusWf.
Variable data codata : list ctydecl.
Variable defs : list cdef.
Hypothesis Hdisj : forall n d, find_decl data n = Some d -> find_decl codata n = None.

Notation ct := (ccheck_term data codata defs).
Notation cs := (ccheck_stmt data codata defs).
Lemma typed_wf :
  (forall t G side ty, ct G side ty t = None -> wf_term side t = true) /\
  (forall a G s, arg_typed data codata defs G a s -> wf_arg a = true) /\
  (forall cl G, clause_typed data codata defs G cl -> wf_clause cl = true) /\
  (forall s G, cs G s = None -> wf_stmt s = true).
Proof.
  apply cterm_mutind.
  - reflexivity.
  - intros n G side ty H. apply ct_lit in H. destruct H as [-> _]. reflexivity.
  - intros a o b IHa IHb G side ty H. apply ct_op in H. destruct H as (-> & _ & Ha & Hb).
    cbn [wf_term]. rewrite (IHa _ _ _ Ha), (IHb _ _ _ Hb). reflexivity.
  - intros c v s t IHs G side ty H. apply ct_mu in H. destruct H as (_ & _ & H). exact (IHs _ H).
  - intros c x args t F G side ty H. apply ct_xtor in H. destruct H as (_ & _ & n & d & sg & _ & _ & _ & Ha).
    exact (args_typed_forallb _ _ _ _ _ _ _ F Ha).
  - intros c cls t F G side ty H. apply ct_xcase in H. destruct H as (_ & _ & n & d & _ & _ & _ & Hc).
    cbn [wf_term]. apply forallb_forall. intros cl Hin. rewrite Forall_forall in F, Hc. exact (F cl Hin G (Hc cl Hin)).
  - intros p IH G s H. unfold arg_typed in H. destruct (cbchi s); [exact (IH _ _ _ H) | contradiction].
  - intros k IH G s H. unfold arg_typed in H. destruct (cbchi s); [contradiction | exact (IH _ _ _ H)].
  - intros c x ctx body IH G H. exact (IH _ H).
  - intros p t k IHp IHk G H. apply cs_cut in H. destruct H as (_ & Hp & Hk). cbn [wf_stmt].
    rewrite (IHp _ _ _ Hp), (IHk _ _ _ Hk). cbn [andb].
    destruct k; cbn [is_xtor]; try (rewrite !andb_false_r; reflexivity). rewrite !andb_true_r.
    apply ct_xtor in Hk. destruct Hk as (_ & _ & n & d & sg & -> & Hd & _).
    destruct p; cbn [is_xtor is_op]; try reflexivity; exfalso.
    + (* op against xtor: i64 vs declared type *)
      apply ct_op in Hp. destruct Hp as (_ & Hp & _). discriminate.
    + (* xtor against xtor: data vs codata *)
      apply ct_xtor in Hp. destruct Hp as (_ & _ & n' & d' & sg' & E & Hd' & _). injection E as <-.
      cbn [xdecls] in Hd, Hd'. rewrite (Hdisj _ _ Hd') in Hd. discriminate.
  - intros s a b t e IHa IHb IHt IHe G H. apply cs_ifc in H. destruct H as (Ha & Hb & Ht & He). cbn [wf_stmt].
    rewrite (IHa _ _ _ Ha), (IHt _ Ht), (IHe _ He).
    destruct b as [b'|]; [|reflexivity]. rewrite (IHb b' eq_refl _ _ _ Hb). reflexivity.
  - intros nl a next IHa IHn G H. apply cs_print in H. destruct H as (Ha & Hn). cbn [wf_stmt].
    rewrite (IHa _ _ _ Ha), (IHn _ Hn). reflexivity.
  - intros f args t F G H. apply cs_call in H. destruct H as (_ & d & _ & Ha). exact (args_typed_forallb _ _ _ _ _ _ _ F Ha).
  - intros a t IHa G H. apply cs_exit in H. destruct H as (_ & Ha). exact (IHa _ _ _ Ha).
Qed.
End FocusWf.


Theorem wt_core_focus_wf : forall c, wt_core c = true -> focus_wf c = true.
Proof.
  intros c Hc. apply wt_core_iff, check_core_iff in Hc. destruct Hc as (_ & Hnd & _ & _ & _ & Hc).
  unfold focus_wf. apply forallb_forall. intros d Hd.
  apply ccheck_defs_iff in Hc. rewrite Forall_forall in Hc. destruct (Hc d Hd) as (_ & _ & Hs).
  refine (proj2 (proj2 (proj2 (typed_wf (cpdata c) (cpcodata c) (cpdefs c) _))) (cdbody d) (cdctx d) Hs).
  intros n d0 Hn. apply (nodup_types_disjoint _ _ Hnd). rewrite Hn. discriminate.
Qed.

(* ... hence focusing (uniquify included) is total on well-typed programs: none of its panics
   ("Cannot happen", "Constructors and destructors should always be focused in cuts directly",
   "Arithmetic operators should always be focused in cuts directly", subst_sim's "cannot happen")
   is reachable *)
Theorem focus_total_wt : forall c, wt_core c = true -> exists f, focus_prog c = Ok f.
Proof. intros c H. apply focus_total_thm. apply wt_core_focus_wf. exact H. Qed.


(* REGRESSION (fixed in /repo by d5d4151).  An accepted program - accepted by the model of the checker AND
   well-typed according to the declarative specification Sem/FunTyping.v - whose translation BEFORE THE FIX
   ([compile_prog_before_fix]) is an ILL-TYPED Core program.  The annotated form is the real checker's output
   for corpus/fun/c12_capture_illtyped.sc (compared by modelrun `wt-stages` on every run). *)
Lemma fun2core_typing_refuted_before_fix_lemma :
  exists (src : fprog) (p : fcprog) (c : cprog),
    has_type_b src = true /\ Check.check src = COk p /\ annotated_fcprog p = true /\
    compile_prog_before_fix p = Fun2Core.Ok c /\ wt_core c = false /\
    shadowing_risk_prog p = true /\ barendregt p = false.
Proof.
  exists capture_typing_source, capture_typing_witness. eexists.
  do 6 (split; [vm_compute; reflexivity|]). vm_compute; reflexivity.
Qed.
Lemma capture_typing_witness_fixed_lemma :
  exists c, compile_prog capture_typing_witness = Fun2Core.Ok c /\ wt_core c = true /\
            shadowing_risk_prog capture_typing_witness = true.
Proof.
  eexists. do 2 (split; [vm_compute; reflexivity|]). vm_compute; reflexivity.
Qed.

(* The composition with the three typing links as hypotheses ([H_fun2core_wt], [H_focus_wt], [H_shrink_wt]: the
   unguarded link statements; the last two are refuted as they stand - H_focus_wt_refuted of Proof/WtExamples2.v,
   shrink_typing_unguarded_refuted of Proof/ShrinkTyTop.v -, the guarded forms of all three are proved in
   Proof/Fun2CoreTyProg.v, Proof/FocusTyTop.v, Proof/ShrinkTyTop.v and composed in Proof/WtPipeline.v);
   everything else is discharged by proved theorems:
     focusing total on typed programs          wt_core_focus_wf + C03 focus_total_thm
     shrinking total on typed programs         C04 shrink_total
     wt_ax (+ pre_linear, binders_ok) -> prog_ok                 Proof/AxToLin.v wt_ax_prog_ok
     prog_ok -> lin_check_prog (linearize)     C05 linearize_exact (Proof/LinearizeProof.v)
     lin_check_prog + within capacity -> code generation Ok      Proof/Codegen{Total,X86,A64,RV}.v *)

Definition H_fun2core_wt : Prop :=
  forall src p, Check.check src = COk p -> barendregt p = true ->
  exists c, compile_prog p = Fun2Core.Ok c /\ wt_core c = true /\ pre_check c = true.
Definition H_focus_wt : Prop :=
  forall c f, wt_core c = true -> pre_check c = true -> focus_prog c = Backend.Ok f ->
  wt_fs f = true /\ unique_binders f = true /\ ids_bounded f = true.
Definition H_shrink_wt : Prop :=
  forall f a, wt_fs f = true -> unique_binders f = true -> ids_bounded f = true -> shrink_prog f = SOk a ->
  AxCheck.wt_ax a = true /\ pre_linear_prog a = true /\ binders_ok a = true.

(* from a typed AxCut program on: the hypothesis of the linearization theorem holds, the linearized program passes its
   check, and the three code generators succeed within capacity *)
Lemma wt_ax_backends_total : forall a,
  AxCheck.wt_ax a = true -> pre_linear_prog a = true -> binders_ok a = true ->
  prog_ok a = true /\
  let l := linearize a in
  lin_check_prog l = true /\
  (forall lc, within_capacity_x86 l = true -> exists code lc', x86_compile l lc = Backend.Ok (code, main_arity l, lc')) /\
  (forall lc, within_capacity_a64 l = true -> exists code lc', a64_compile l lc = Backend.Ok (code, main_arity l, lc')) /\
  (forall lc, within_capacity_rv l = true -> exists code lc', rv_compile l lc = Backend.Ok (code, main_arity l, lc')).
Proof.
  intros a WA PL BO.
  assert (PO : prog_ok a = true).
  { apply wt_ax_prog_ok; [|exact PL|exact BO]. unfold AxCheck.wt_ax in WA. destruct (AxCheck.check_prog a); [discriminate|reflexivity]. }
  pose proof (linearize_exact a PO) as LC. split; [exact PO|]. cbv zeta. split; [exact LC|]. split; [|split]; intros lc W.
  - exact (x86_codegen_total _ lc LC W).
  - exact (a64_codegen_total _ lc LC W).
  - exact (rv_codegen_total _ lc LC W).
Qed.

Lemma pipeline_wt_partial_lemma :
  H_fun2core_wt -> H_focus_wt -> H_shrink_wt ->
  forall src p, Check.check src = COk p -> barendregt p = true ->
  exists c f a,
    compile_prog p = Fun2Core.Ok c /\ wt_core c = true /\
    focus_prog c = Backend.Ok f /\ wt_fs f = true /\
    shrink_prog f = SOk a /\ AxCheck.wt_ax a = true /\ prog_ok a = true /\
    let l := linearize a in
    lin_check_prog l = true /\
    (forall lc, within_capacity_x86 l = true -> exists code lc', x86_compile l lc = Backend.Ok (code, main_arity l, lc')) /\
    (forall lc, within_capacity_a64 l = true -> exists code lc', a64_compile l lc = Backend.Ok (code, main_arity l, lc')) /\
    (forall lc, within_capacity_rv l = true -> exists code lc', rv_compile l lc = Backend.Ok (code, main_arity l, lc')).
Proof.
  intros HF HFo HS src p CK BA.
  destruct (HF src p CK BA) as (c & EC & WC & PC).
  destruct (focus_total_wt c WC) as [f EF].
  destruct (HFo c f WC PC EF) as (WF & UB & IB).
  destruct (shrink_total f WF) as [a EA].
  destruct (HS f a WF UB IB EA) as (WA & PL & BO).
  exists c, f, a.
  split; [exact EC|]. split; [exact WC|]. split; [exact EF|]. split; [exact WF|].
  split; [exact EA|]. split; [exact WA|]. exact (wt_ax_backends_total a WA PL BO).
Qed.
Print Assumptions pipeline_wt_partial_lemma.

Lemma hypotheses_are_statements :
  (H_fun2core_wt <-> (forall src p, Check.check src = COk p -> barendregt p = true ->
                      exists c, compile_prog p = Fun2Core.Ok c /\ wt_core c = true /\ pre_check c = true)) /\
  ((forall c, wt_core c = true -> pre_check c = true ->
    exists f, focus_prog c = Backend.Ok f /\ wt_fs f = true /\ unique_binders f = true /\ ids_bounded f = true) -> H_focus_wt) /\
  ((forall f, wt_fs f = true -> unique_binders f = true -> ids_bounded f = true ->
    exists a, shrink_prog f = SOk a /\ AxCheck.wt_ax a = true /\ pre_linear_prog a = true /\ binders_ok a = true) -> H_shrink_wt).
Proof.
  split; [split; intros H; exact H|]. split.
  - intros H c f WC PC EF. destruct (H c WC PC) as (f' & EF' & R). rewrite EF in EF'. inversion EF'; subst. exact R.
  - intros H f a WF UB IB EA. destruct (H f WF UB IB) as (a' & EA' & R). rewrite EA in EA'. inversion EA'; subst. exact R.
Qed.
