(* Proof/ShrinkTyFv.v (C12, fragment 2) - a statement accepted by the AxCut checker in a context only
   mentions variables of that context: its free variables (AxCheck.fv_stmt) are ids of the context.
   Hence the `lift-wrong-free-vars` check of check_def never fails on a well-typed definition. *)
From Coq Require Import List ZArith NArith String Bool Lia.
From SCC Require Import Base.Sexp Lang.SynUtil Lang.CoreSyn Lang.AxSyn Proof.ShrinkProof Proof.ShrinkTyC.
From SCC Require Sem.AxCheck.
Import ListNotations.
Open Scope list_scope.

Lemma mem_n_in : forall x l, AxCheck.mem_n x l = true <-> In x l.
Proof.
  intros. unfold AxCheck.mem_n. rewrite existsb_exists. split.
  - intros (y & Hy & He). apply N.eqb_eq in He. now subst.
  - intros H. exists x. split; [exact H | apply N.eqb_refl].
Qed.
Lemma add_n_in : forall x l y, In y (AxCheck.add_n x l) -> y = x \/ In y l.
Proof.
  intros x l y H. unfold AxCheck.add_n in H. destruct (AxCheck.mem_n x l); [now right|].
  apply in_app_or in H as [H|[<-|[]]]; auto.
Qed.
Lemma fold_add_in : forall xs acc y, In y (fold_left (fun acc x => AxCheck.add_n x acc) xs acc) -> In y xs \/ In y acc.
Proof.
  induction xs as [|x r IH]; intros acc y H; simpl in H; [now right|].
  apply IH in H as [H|H]; [left; now right|]. apply add_n_in in H as [->|H]; [left; now left | now right].
Qed.
Lemma union_n_in : forall a b y, In y (AxCheck.union_n a b) -> In y a \/ In y b.
Proof. intros a b y H. unfold AxCheck.union_n in H. apply fold_add_in in H. tauto. Qed.
Lemma minus_n_in : forall a b y, In y (AxCheck.minus_n a b) -> In y a /\ ~ In y b.
Proof.
  intros a b y H. unfold AxCheck.minus_n in H. apply filter_In in H as [H1 H2]. split; [exact H1|].
  apply negb_true_iff in H2. intros Hin. apply mem_n_in in Hin. congruence.
Qed.
Lemma minus_n_nil : forall a b, (forall y, In y a -> In y b) -> AxCheck.minus_n a b = [].
Proof.
  intros a b H. unfold AxCheck.minus_n. induction a as [|x r IH]; [reflexivity|]. simpl.
  assert (AxCheck.mem_n x b = true) by (apply mem_n_in; apply H; now left). rewrite H0. simpl. apply IH. intros y Hy. apply H. now right.
Qed.

Lemma bound_in : forall G x c t, AxCheck.bound G x c t = None -> In (idn x) (ids G).
Proof.
  intros G x c t H. unfold AxCheck.bound in H. destruct (AxCheck.lookup_b G (idn x)) eqn:E; [|discriminate]. eapply lookup_b_in; eauto.
Qed.
Lemma args_ok_in : forall what G args sg, AxCheck.args_ok what G args sg = None -> forall i, In i (ids args) -> In i (ids G).
Proof.
  intros what G. induction args as [|a r IH]; intros [|s sr] H i Hi; simpl in *; try discriminate; [contradiction|].
  apply seq_none in H as [_ H]. apply seq_none in H as [H1 H2]. destruct Hi as [<-|Hi]; [eapply bound_in; eauto | eapply IH; eauto].
Qed.

Section Fv.
Variable ts : list tydecl.
Variable ds : list def.

(* The clause loops of the checker and of [fv_stmt] are anonymous nested [fix]es; here they are repeated under names.
   The copies are convertible with the originals, which is how [fv_scoped] applies [fv_cls_scoped] to them. *)
Definition check_cls : string -> ctx -> list (ident * ctx * stmt) -> list xtorsig -> AxCheck.cerr :=
  fix go (what : string) (G : ctx) (cls : list (ident * ctx * stmt)) (xs : list xtorsig) {struct cls} : AxCheck.cerr :=
    match cls, xs with
    | [], [] => None
    | (x, c, b) :: cr, sg :: xr =>
        match AxCheck.ensure (ident_eqb x (xname sg)) (what ++ ": clause " ++ show_ident x ++ " where " ++ show_ident (xname sg) ++ " is expected") with
        | Some e => Some e
        | None =>
        match AxCheck.params_ok (what ++ " clause " ++ show_ident x) c (xargs sg) with
        | Some e => Some e
        | None =>
        match AxCheck.fresh_all G c with
        | Some e => Some e
        | None =>
        match acheck ts ds (app c G) b with
        | Some e => Some e
        | None => go what G cr xr
        end end end end
    | _, _ => AxCheck.ill (what ++ ": number of clauses differs from the number of xtors")
    end.
Definition fv_cls : list (ident * ctx * stmt) -> list N :=
  fix go (cls : list (ident * ctx * stmt)) : list N :=
    match cls with
    | [] => []
    | (_, c, b) :: r => AxCheck.union_n (AxCheck.minus_n (AxCheck.fv_stmt b) (ids c)) (go r)
    end.

Definition scoped (t : stmt) : Prop := forall G, acheck ts ds G t = None -> forall i, In i (AxCheck.fv_stmt t) -> In i (ids G).

(* a free variable of a clause body that is not a parameter of the clause is in the context *)
Lemma fv_cls_scoped : forall cls, Forall (fun c : ident * ctx * stmt => scoped (snd c)) cls ->
  forall what G xs, check_cls what G cls xs = None -> forall i, In i (fv_cls cls) -> In i (ids G).
Proof.
  intros cls IH what G. induction IH as [|[[x c] b] r Hb _ IHr]; intros xs H i Hi; [contradiction|].
  destruct xs as [|sg xr]; [discriminate|]. cbn [check_cls] in H.
  apply seq_none in H as [_ H]. apply seq_none in H as [_ H]. apply seq_none in H as [_ H]. apply seq_none in H as [H2 H3].
  cbn [fv_cls] in Hi. apply union_n_in in Hi as [Hi|Hi]; [|eapply IHr; eauto].
  apply minus_n_in in Hi as [Hi Hn]. apply (Hb _ H2) in Hi. unfold ids in Hi. rewrite map_app in Hi.
  apply in_app_or in Hi as [Hi|Hi]; [contradiction | exact Hi].
Qed.

Lemma fv_scoped : forall t, scoped t.
Proof.
  apply (stmt_ind' scoped); unfold scoped.
  - (* Substitute *) intros re n IH G H i Hi. simpl in H, Hi. apply seq_none in H as [H _].
    apply in_map_iff in Hi as ([nb old] & <- & Hin). cbn [snd].
    induction re as [|[nb0 old0] r IHr]; [contradiction|]. apply seq_none in H as [H1 H2].
    destruct Hin as [E|Hin]; [inv E; eapply bound_in; eauto | now apply IHr].
  - (* Call *) intros l a G H i Hi. simpl in H, Hi. destruct (find _ ds) as [d|]; [|discriminate].
    apply fold_add_in in Hi as [Hi|[]]. eapply args_ok_in; eauto.
  - (* Let *) intros v t tag a n IH G H i Hi. simpl in H, Hi.
    destruct (AxCheck.type_of ts _ t) as [[e|] [d|]]; try discriminate. destruct (AxCheck.find_xtor d tag); [|discriminate].
    apply seq_none in H as [H1 H]. apply seq_none in H as [_ H2].
    apply union_n_in in Hi as [Hi|Hi].
    + apply fold_add_in in Hi as [Hi|[]]. eapply args_ok_in; eauto.
    + apply minus_n_in in Hi as [Hi Hn]. apply (IH _ H2) in Hi. cbn [ids map bvar] in Hi. destruct Hi as [<-|Hi]; [exfalso; apply Hn; now left | exact Hi].
  - (* Switch *) intros v t cls IH G H i Hi. simpl in H, Hi.
    destruct (AxCheck.type_of ts _ t) as [[e|] [d|]]; try discriminate.
    apply seq_none in H as [H1 H]. destruct (_ && _); [discriminate|].
    apply union_n_in in Hi as [[<-|[]]|Hi]; [eapply bound_in; eauto | exact (fv_cls_scoped _ IH _ _ _ H _ Hi)].
  - (* Create *) intros v t env cls n IH IHn G H i Hi. simpl in H, Hi.
    destruct (AxCheck.type_of ts _ t) as [[e|] [d|]]; try discriminate.
    apply seq_none in H as [H1 H]. apply seq_none in H as [_ H2].
    apply union_n_in in Hi as [Hi|Hi].
    + destruct env as [ce|].
      * apply seq_none in H1 as [H0 H1]. destruct (_ && _); [discriminate|].
        (* the clauses are checked in the closure environment, which is checked in the context *)
        assert (Hce : forall j, In j (ids ce) -> In j (ids G)).
        { clear -H0. induction ce as [|b r IHc]; intros j Hj; [contradiction|]. apply seq_none in H0 as [A Bc].
          destruct Hj as [<-|Hj]; [eapply bound_in; eauto | now apply IHc]. }
        apply Hce. exact (fv_cls_scoped _ IH _ _ _ H1 _ Hi).
      * destruct (_ && _); [discriminate|]. exact (fv_cls_scoped _ IH _ _ _ H1 _ Hi).
    + apply minus_n_in in Hi as [Hi Hn]. apply (IHn _ H2) in Hi. cbn [ids map bvar] in Hi. destruct Hi as [<-|Hi]; [exfalso; apply Hn; now left | exact Hi].
  - (* Invoke *) intros v tag t a G H i Hi. simpl in H, Hi.
    destruct (AxCheck.type_of ts _ t) as [[e|] [d|]]; try discriminate. destruct (AxCheck.find_xtor d tag); [|discriminate].
    apply seq_none in H as [H1 H2]. apply fold_add_in in Hi as [Hi|[<-|[]]]; [eapply args_ok_in; eauto | eapply bound_in; eauto].
  - (* Literal *) intros z v n IH G H i Hi. simpl in H, Hi. apply seq_none in H as [_ H].
    apply minus_n_in in Hi as [Hi Hn]. apply (IH _ H) in Hi. cbn [ids map bvar] in Hi. destruct Hi as [<-|Hi]; [exfalso; apply Hn; now left | exact Hi].
  - (* Op *) intros a o b v n IH G H i Hi. simpl in H, Hi. apply seq_none in H as [Ha H]. apply seq_none in H as [Hb H]. apply seq_none in H as [_ H].
    apply union_n_in in Hi as [Hi|Hi].
    + apply add_n_in in Hi as [->|[<-|[]]]; eapply bound_in; eauto.
    + apply minus_n_in in Hi as [Hi Hn]. apply (IH _ H) in Hi. cbn [ids map bvar] in Hi. destruct Hi as [<-|Hi]; [exfalso; apply Hn; now left | exact Hi].
  - (* Print *) intros nl v n IH G H i Hi. simpl in H, Hi. apply seq_none in H as [Hv H].
    apply union_n_in in Hi as [[<-|[]]|Hi]; [eapply bound_in; eauto | eapply IH; eauto].
  - (* IfC *) intros so a b t e IHt IHe G H i Hi. simpl in H, Hi. apply seq_none in H as [Ha H]. apply seq_none in H as [Hb H]. apply seq_none in H as [Ht He].
    apply union_n_in in Hi as [Hi|Hi].
    + destruct b as [b|].
      * apply add_n_in in Hi as [->|[<-|[]]]; eapply bound_in; eauto.
      * destruct Hi as [<-|[]]. eapply bound_in; eauto.
    + apply union_n_in in Hi as [Hi|Hi]; [eapply IHt | eapply IHe]; eauto.
  - (* Exit *) intros v G H i Hi. simpl in H, Hi. destruct Hi as [<-|[]]. eapply bound_in; eauto.
Qed.
End Fv.
