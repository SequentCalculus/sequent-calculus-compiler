(* C12: the generic code generator Backend.code_statement returns
   Ok on every statement accepted by the ordered linear discipline (LinCheck.lin_check) whose
   contexts stay within the capacity of the back end:  "variable not found in context",
   "Type not found", "Xtor not found", "split_off underflow", "Closure environment must be
   annotated" and the fuel of the parallel-move algorithm are UNREACHABLE; the only failures left
   are the capacity assertions of the back end (Model/Capacity.v).

   Generic part: any back end satisfying [backend_ok] (Proof/SubstGraph.v: its Temporary order is a
   strict total order, its numbering injective) and [capacity_ok P]:
     - temporary_from_position p succeeds for p < P,
     - store / load succeed when the context they work in, plus one fresh variable, fits.
   Instances: x86-64, AArch64, RISC-V (Proof/CodegenX86.v, CodegenA64.v, CodegenRV.v). *)
From Coq Require Import List ZArith NArith String Bool Lia.
From SCC Require Import Base.Sexp Lang.AxSyn Model.ParMoves Model.Backend Model.Linearize Model.LinCheck Model.Capacity.
From SCC Require Import Proof.LinBasics Proof.LinTyping Proof.SubstGraph Proof.BackendInv.
Import ListNotations.
Open Scope list_scope.

Definition okr {X} (r : res X) : Prop := exists x, r = Ok x.
Lemma okr_Ok {X} (x : X) : okr (Ok x).
Proof. eexists; reflexivity. Qed.
Lemma okr_bind {X Y} (e : res X) (k : X -> res Y) :
  okr e -> (forall x, e = Ok x -> okr (k x)) -> okr (rbind e k).
Proof. intros [x ->] H. cbn. apply H. reflexivity. Qed.
Ltac okb := apply okr_bind; [|intros ? ?].
Ltac sp H a b := apply andb_true_iff in H as [a b].

(* the fields of a list that go to the NEXT block (all but the last cap) are fewer than the list, and split it *)
Lemma split_rest {X} (l : list X) (cap : N) k : l <> [] -> (0 < cap)%N ->
  k = N.to_nat (if N.leb (N.of_nat (List.length l)) cap then 0%N else (N.of_nat (List.length l) - cap)%N) ->
  (List.length (firstn k l) < List.length l)%nat /\ (List.length (firstn k l) + List.length (skipn k l) = List.length l)%nat.
Proof.
  intros NE C ->. split; [|rewrite <- app_length, firstn_skipn; reflexivity]. rewrite firstn_length.
  destruct l as [|b l]; [contradiction|]. cbn [List.length].
  destruct (N.leb_spec (N.of_nat (S (List.length l))) cap); lia.
Qed.
Lemma position_of_lt c : forall id k p, position_of c id k = Some p -> (k <= p < k + N.of_nat (List.length c))%N.
Proof.
  induction c as [|b c IH]; intros id k p H; cbn in H; [discriminate|].
  destruct (N.eqb (idn (bvar b)) id).
  - inversion H; subst. cbn [List.length]. lia.
  - apply IH in H. cbn [List.length]. lia.
Qed.
Lemma position_of_some c : forall id k, In id (ids c) -> exists p, position_of c id k = Some p.
Proof.
  induction c as [|b c IH]; intros id k H; cbn in H; [contradiction|]. cbn [position_of].
  destruct (N.eqb (idn (bvar b)) id) eqn:E; [eauto|].
  destruct H as [H|H]; [apply N.eqb_neq in E; contradiction|]. apply IH; auto.
Qed.
Lemma split_last_lastn n c c0 tl : split_lastn n c = Some (c0, tl) -> split_last n c = Ok (c0, tl).
Proof. unfold split_lastn, split_last. destruct (Nat.leb n (List.length c)); [|discriminate]. intros H; inversion H; reflexivity. Qed.
Lemma split_lastn_parts n c c0 tl :
  split_lastn n c = Some (c0, tl) -> c0 = butlast_n n c /\ tl = last_n n c /\ c = c0 ++ tl /\ List.length tl = n.
Proof.
  intros H. pose proof (split_lastn_Some _ _ _ _ H) as [E L]. unfold split_lastn in H.
  destruct (Nat.leb n (List.length c)); [|discriminate]. inversion H as [[H1 H2]]. clear H.
  unfold butlast_n, last_n. rewrite H1, H2. auto.
Qed.
Lemma removelast_butlast (c : ctx) : removelast c = butlast_n 1 c.
Proof.
  unfold butlast_n. destruct c as [|b c]; [reflexivity|].
  rewrite removelast_firstn_len. f_equal. cbn [List.length]. lia.
Qed.
Lemma In_ids_app_r c (b : binding) : In (idn (bvar b)) (ids (c ++ [b])).
Proof. unfold ids. rewrite map_app. apply in_or_app. right. cbn. auto. Qed.
Lemma In_ids_app_l c c' x : In x (ids c) -> In x (ids (c ++ c')).
Proof. unfold ids. rewrite map_app. intros. apply in_or_app. auto. Qed.
Lemma NoDup_ids_NoDup (c : ctx) : NoDup (ids c) -> NoDup c.
Proof. unfold ids. apply NoDup_map_inv. Qed.

Lemma has_In_ids_ c x k t : has c x k t = true -> In (idn x) (ids c).
Proof.
  unfold has. destruct (lookup_b c (idn x)) as [b|] eqn:E; [|discriminate]. intros _.
  apply lookup_b_Some in E as [HI <-]. unfold ids. apply in_map_iff. eauto.
Qed.

Lemma args_ok_lookup S t tag args :
  args_ok S t tag args = true ->
  exists d, lookup_type (sg_types S) t = Ok d /\ okr (xtor_position (txtors d) tag 0).
Proof.
  unfold args_ok, lookup_xtor, type_xtors, lookup_type. destruct t as [|n]; [discriminate|].
  destruct (find (fun d => ident_eqb (tname d) n) (sg_types S)) as [d|]; [|discriminate].
  destruct (find (fun x => ident_eqb (xname x) tag) (txtors d)) as [x|] eqn:F; [|discriminate].
  intros _. exists d. split; [reflexivity|].
  clear -F. generalize 0%N. induction (txtors d) as [|y r IH]; intros k; cbn in *; [discriminate|].
  destruct (ident_eqb (xname y) tag); [apply okr_Ok|]. apply IH. exact F.
Qed.

Section G.
Context {Code Temp : Type} (B : backend Code Temp).
Variable P : N.

Record capacity_ok : Prop := {
  co_temp : forall p, (p < P)%N -> okr (b_temporary_from_position B p);
  co_store : forall args rest lc,
      (2 * N.of_nat (List.length rest + List.length args) + 2 <= P)%N -> okr (b_store B args rest lc);
  co_load : forall to_load existing lc,
      (2 * N.of_nat (List.length existing + List.length to_load) + 2 <= P)%N -> okr (b_load B to_load existing lc) }.

Hypothesis OKB : backend_ok B.
Hypothesis CO : capacity_ok.
Variable K : nat.
Hypothesis HK : (2 * N.of_nat K + 2 <= P)%N.

Lemma vt_ok n c id : In id (ids c) -> (List.length c <= K)%nat -> okr (variable_temporary B n c id).
Proof.
  intros HI HL. unfold variable_temporary. destruct (position_of_some c id 0 HI) as [p E]. rewrite E.
  apply position_of_lt in E. apply (co_temp CO). destruct n; unfold tnum_n; lia.
Qed.
Lemma vt_has n c x k t : has c x k t = true -> (List.length c <= K)%nat -> okr (variable_temporary B n c (idn x)).
Proof.
  intros H. apply vt_ok. exact (has_In_ids_ _ _ _ _ H).
Qed.

Lemma cwc_ok c (HL : (List.length c <= K)%nat) : forall tm lc,
  (forall b tg, In (b, tg) tm -> In b c) -> okr (code_weakening_contraction B tm c lc).
Proof.
  induction tm as [|[b tg] tm IH]; intros lc H; cbn [code_weakening_contraction]; [apply okr_Ok|].
  assert (IH' : forall lc, okr (code_weakening_contraction B tm c lc)).
  { intros lc'. apply IH. intros b' tg' Hb. apply (H b' tg'). right; exact Hb. }
  destruct (bchi b) eqn:Eb; [| |apply IH'].
  all: okb;
    [ unfold update_reference_count; okb;
      [ apply vt_ok; [|exact HL]; unfold ids; apply in_map_iff; exists b; split; [reflexivity|]; apply (H b tg); left; reflexivity
      | destruct (List.length tg) as [|[|m]]; apply okr_Ok ]
    | destruct x as [c1 lc1]; okb; [apply IH'|destruct x as [c2 lc2]; apply okr_Ok] ].
Qed.

Lemma rmap_ok {X Y} (f : X -> res Y) l : (forall x, In x l -> okr (f x)) -> okr (rmap f l).
Proof.
  induction l as [|x l IH]; intros H; cbn [rmap]; [apply okr_Ok|].
  okb; [apply H; left; reflexivity|]. okb; [apply IH; intros; apply H; right; assumption|]. apply okr_Ok.
Qed.

Lemma connections_ok c nc (HL : (List.length c <= K)%nat) (HN : (List.length nc <= K)%nat) :
  forall tm, (forall b tg, In (b, tg) tm -> In b c /\ forall t, In t tg -> In t (ids nc)) ->
  okr (connections B tm c nc).
Proof.
  intros tm. rewrite connections_unfold.
  assert (G : forall tm m, (forall b tg, In (b, tg) tm -> In b c /\ forall t, In t tg -> In t (ids nc)) ->
                           okr (fold_left (conn_step B c nc) tm (Ok m))).
  { clear tm. induction tm as [|[b tg] tm IH]; intros m H; cbn [fold_left]; [apply okr_Ok|].
    destruct (H b tg (or_introl eq_refl)) as [Hb Ht].
    assert (INS : forall n m0, okr (ins B c nc n b tg m0)).
    { intros n m0. unfold ins. okb.
      - apply vt_ok; [|exact HL]. unfold ids. apply in_map_iff. eauto.
      - okb; [|apply okr_Ok]. apply rmap_ok. intros t Hin. apply vt_ok; [apply Ht; exact Hin|exact HN]. }
    assert (ST : okr (conn_step B c nc (Ok m) (b, tg))).
    { unfold conn_step. cbn [rbind]. destruct (bchi b); [| |apply INS]; (okb; [apply INS|apply INS]). }
    destruct ST as [m' ->]. apply IH. intros b' tg' Hin. apply H. right. exact Hin. }
  apply G.
Qed.

Lemma parallel_moves_code_ok (am : amap Temp) : indeg1 Temp (teqb B) am -> okr (parallel_moves_code B am).
Proof.
  intros ID. unfold parallel_moves_code.
  pose proof (parallel_moves_terminates Temp (teqb B) (teqb_spec B OKB) am ID) as H. unfold parallel_moves in H.
  destruct (spanning_forest Temp (teqb B) _ am); [apply okr_Ok|]. exfalso. apply H. reflexivity.
Qed.

Lemma targets_in re b t : In t (targets re b) -> In t (ids (map fst re)).
Proof.
  unfold targets. intros H. apply in_map_iff in H as (p & <- & Hp). apply filter_In in Hp as [Hp _].
  unfold ids. rewrite map_map. apply in_map_iff. exists p. split; [reflexivity|exact Hp].
Qed.

Lemma substitute_ok c re lc :
  NoDup (ids c) -> NoDup (ids (map fst re)) -> (List.length c <= K)%nat -> (List.length (map fst re) <= K)%nat ->
  okr (code_weakening_contraction B (transpose re c) c lc) /\ okr (code_exchange B (transpose re c) c (map fst re)).
Proof.
  intros NDc NDn HL HN. pose proof (NoDup_ids_NoDup c NDc) as NDb.
  assert (TM : forall b tg, In (b, tg) (transpose re c) -> In b c /\ forall t, In t tg -> In t (ids (map fst re))).
  { intros b tg H. apply (In_transpose re c b tg NDb) in H as [Hb ->]. split; [exact Hb|]. intros t. apply targets_in. }
  split.
  - apply cwc_ok; [exact HL|]. intros b tg H. apply (TM b tg H).
  - unfold code_exchange.
    destruct (connections_ok c (map fst re) HL HN (transpose re c) TM) as [am E]. rewrite E. cbn [rbind].
    apply parallel_moves_code_ok.
    rewrite ids_new in NDn.
    exact (proj1 (transpose_connections_indeg1 B OKB c re am NDc NDn E)).
Qed.

Variable S : sigs.
Notation types := (sg_types S).

(* the code generator reads only the IDS of the context it is given (positions, lengths); the typed
   context of lin_check and the context the generator threads differ in the NAMES of the variables
   of a closure environment (ctx_match compares ids, kinds and types) *)
Definition IHs (s : stmt) : Prop :=
  forall c c', ids c' = ids c -> lin_check S c s = true -> cap_ok K c s = true ->
  forall lc, okr (code_statement B types s c' lc).

Lemma cap_len c s : cap_ok K c s = true -> (List.length c <= K)%nat.
Proof. destruct s; cbn [cap_ok]; intros H; apply andb_true_iff in H as [H _]; apply Nat.leb_le; exact H. Qed.
Lemma lin_nodup c s : lin_check S c s = true -> NoDup (ids c).
Proof. destruct s; cbn [lin_check]; intros H; apply andb_true_iff in H as [H _]; apply nodupb_NoDup; exact H. Qed.

Lemma ids_len (c c' : ctx) : ids c' = ids c -> List.length c' = List.length c.
Proof. intros H. unfold ids in H. rewrite <- (map_length (fun b => idn (bvar b)) c'), H. apply map_length. Qed.
Lemma ids_app (a b : ctx) : ids (a ++ b) = ids a ++ ids b.
Proof. apply map_app. Qed.
Lemma ids_butlast n (c c' : ctx) : ids c' = ids c -> ids (butlast_n n c') = ids (butlast_n n c).
Proof.
  intros H. unfold butlast_n. rewrite (ids_len _ _ H). unfold ids in *. rewrite <- !firstn_map, H. reflexivity.
Qed.
Lemma ids_last n (c c' : ctx) : ids c' = ids c -> ids (last_n n c') = ids (last_n n c).
Proof.
  intros H. unfold last_n. rewrite (ids_len _ _ H). unfold ids in *. rewrite <- !skipn_map, H. reflexivity.
Qed.
Lemma split_last_ok n (c c' : ctx) c0 tl :
  ids c' = ids c -> split_lastn n c = Some (c0, tl) -> split_last n c' = Ok (butlast_n n c', last_n n c').
Proof.
  intros H SP. unfold split_lastn in SP. unfold split_last. rewrite (ids_len _ _ H).
  destruct (Nat.leb n (List.length c)); [|discriminate]. unfold butlast_n, last_n. rewrite (ids_len _ _ H). reflexivity.
Qed.

Lemma cap_switch c v t cls :
  cap_ok K c (Switch v t cls) =
  Nat.leb (List.length c) K && forallb (fun cl => cap_ok K (butlast_n 1 c ++ cl_ctx cl) (cl_body cl)) cls.
Proof.
  cbn [cap_ok]. f_equal. induction cls as [|[[x cc] bd] r IH]; cbn [forallb]; [reflexivity|].
  unfold cl_ctx, cl_body; cbn [fst snd]. rewrite IH. reflexivity.
Qed.
Lemma cap_create c v t env cls next :
  cap_ok K c (Create v t (Some env) cls next) =
  Nat.leb (List.length c) K && (forallb (fun cl => cap_ok K (cl_ctx cl ++ env) (cl_body cl)) cls
                           && cap_ok K (butlast_n (List.length env) c ++ [mkb v Cns t]) next).
Proof.
  cbn [cap_ok]. f_equal. f_equal. induction cls as [|[[x cc] bd] r IH]; cbn [forallb]; [reflexivity|].
  unfold cl_ctx, cl_body; cbn [fst snd]. rewrite IH. reflexivity.
Qed.

(* the clause loop of Switch (gf cx = c0 ++ cx) and Create (gf cx = cx ++ env): gf forms the context the checker sees,
   ctxf the one the code generator is given *)
Lemma loop_ok (fresh : string) ldf (ctxf gf : ctx -> ctx) :
  (forall cx, ids (ctxf cx) = ids (gf cx)) ->
  (forall cx lc, (List.length (gf cx) <= K)%nat -> okr (ldf cx lc)) ->
  forall cls,
  Forall (fun cl => IHs (cl_body cl)) cls ->
  forallb (fun cl => lin_check S (gf (cl_ctx cl)) (cl_body cl)) cls = true ->
  forallb (fun cl => cap_ok K (gf (cl_ctx cl)) (cl_body cl)) cls = true ->
  forall lc, okr (cl_loop B types fresh ldf ctxf cls lc).
Proof.
  intros E0 LD. induction cls as [|[[x cx] body] r IH]; intros F L C lc; [apply okr_Ok|].
  inversion F as [|? ? Fb Fr]; subst. cbn [forallb cl_ctx cl_body fst snd] in L, C.
  apply andb_true_iff in L as [L1 L2]. apply andb_true_iff in C as [C1 C2]. cbn [cl_loop].
  okb; [apply LD, (cap_len _ _ C1)|]. destruct x0 as [cl lc1].
  okb; [apply (Fb (gf cx) (ctxf cx) (E0 cx) L1 C1)|]. destruct x0 as [cb lc2].
  okb; [apply (IH Fr L2 C2)|]. destruct x0 as [cr lc3]. apply okr_Ok.
Qed.

Ltac wrapok := apply okr_bind; [|intros ? _; apply okr_Ok].

Theorem code_statement_total : forall s, IHs s.
Proof.
  induction s using stmt_ind2; intros c c' Hs L C lc;
    pose proof (cap_len _ _ C) as HLc; pose proof (lin_nodup _ _ L) as NDc;
    pose proof (ids_len _ _ Hs) as HLs;
    assert (HLc' : (List.length c' <= K)%nat) by (rewrite HLs; exact HLc);
    assert (NDc' : NoDup (ids c')) by (rewrite Hs; exact NDc).
  - (* Substitute *)
    cbn [lin_check] in L. cbn [cap_ok] in C. sp L L0 L1. sp L1 Lh Ln. sp C C0 Cn.
    pose proof (cap_len _ _ Cn) as HLn. pose proof (lin_nodup _ _ Ln) as NDn.
    destruct (substitute_ok c' re lc NDc' NDn HLc' HLn) as [W E].
    cbn [code_statement]. wrapok. okb; [exact W|]. destruct x as [c1 lc1].
    okb; [exact E|]. okb; [apply (IHs0 _ _ eq_refl Ln Cn)|]. destruct x0 as [c3 lc3]. apply okr_Ok.
  - (* Call *) cbn [code_statement]. wrapok. apply okr_Ok.
  - (* Let *)
    cbn [lin_check] in L. cbn [cap_ok] in C. sp L L0 L1. sp C C0 Cn.
    destruct (split_lastn (List.length args) c) as [[c0 tl]|] eqn:SP; [|discriminate].
    sp L1 L1 Ln. sp L1 Lm La.
    destruct (split_lastn_parts _ _ _ _ SP) as (E0 & Et & Ec & Lty). rewrite <- E0 in Cn.
    destruct (args_ok_lookup _ _ _ _ La) as (d & LT & XP).
    assert (Hs' : ids (butlast_n (List.length args) c' ++ [mkb v Prd t]) = ids (c0 ++ [mkb v Prd t])).
    { rewrite !ids_app, (ids_butlast _ _ _ Hs), <- E0. reflexivity. }
    cbn [code_statement]. wrapok. rewrite LT. cbn [rbind]. okb; [exact XP|].
    rewrite (split_last_ok _ _ _ _ _ Hs SP). cbn [rbind].
    okb. { apply (co_store CO). unfold butlast_n, last_n. rewrite firstn_length, skipn_length. lia. }
    destruct x0 as [c1 lc1].
    okb. { apply vt_ok; [apply (In_ids_app_r _ (mkb v Prd t))|rewrite (ids_len _ _ Hs'); apply (cap_len _ _ Cn)]. }
    okb; [apply (IHs0 _ _ Hs' Ln Cn)|]. destruct x1 as [c3 lc3]. apply okr_Ok.
  - (* Switch *)
    rewrite lin_check_switch in L. rewrite cap_switch in C. sp L L0 L1. sp C C0 Cc.
    destruct (split_lastn 1 c) as [[c0 [|b [|]]]|] eqn:SP; try discriminate.
    sp L1 L1 Lc. sp L1 L1 Lk. sp L1 L1 Lty. sp L1 Li Lp.
    destruct (split_lastn_parts _ _ _ _ SP) as (E0 & Et & Ec & Ll). rewrite <- E0 in Cc.
    cbn [code_statement]. wrapok.
    okb.
    { destruct (Nat.leb _ 1); [apply okr_Ok|]. okb; [|apply okr_Ok].
      apply vt_ok; [|exact HLc']. rewrite Hs, Ec. apply N.eqb_eq in Li. rewrite <- Li. apply In_ids_app_r. }
    rewrite removelast_butlast.
    assert (E1 : ids (butlast_n 1 c') = ids c0) by (rewrite (ids_butlast 1 _ _ Hs), <- E0; reflexivity).
    okb; [|destruct x0 as [c3 lc3]; apply okr_Ok].
    apply (loop_ok _ (fun cx lc => b_load B cx (butlast_n 1 c') lc) (fun cx => butlast_n 1 c' ++ cx) (fun cx => c0 ++ cx));
      [| |exact H|exact Lc|exact Cc].
    + intros cx. rewrite !ids_app, E1. reflexivity.
    + intros cx l HL. apply (co_load CO). rewrite app_length in HL. rewrite (ids_len _ _ E1). lia.
  - (* Create *)
    destruct env as [env|]; [|cbn [lin_check] in L; sp L L0 L1; discriminate].
    rewrite lin_check_create in L. rewrite cap_create in C. sp L L0 L1. sp C C0 C1. sp C1 Cc Cn.
    destruct (split_lastn (List.length env) c) as [[c0 tl]|] eqn:SP; [|discriminate].
    sp L1 L1 Ln. sp L1 L1 Lc. sp L1 Lm Lk.
    destruct (split_lastn_parts _ _ _ _ SP) as (E0 & Et & Ec & Ll). rewrite <- E0 in Cn.
    assert (Hs' : ids (butlast_n (List.length env) c' ++ [mkb v Cns t]) = ids (c0 ++ [mkb v Cns t])).
    { rewrite !ids_app, (ids_butlast _ _ _ Hs), <- E0. reflexivity. }
    assert (He : ids (last_n (List.length env) c') = ids env).
    { rewrite (ids_last _ _ _ Hs), <- Et. apply ctx_match_Prop in Lm. apply Lm. }
    cbn [code_statement]. wrapok.
    rewrite (split_last_ok _ _ _ _ _ Hs SP). cbn [rbind].
    okb. { apply (co_store CO). unfold butlast_n, last_n. rewrite firstn_length, skipn_length. lia. }
    destruct x as [c1 lc1].
    okb. { apply vt_ok; [apply (In_ids_app_r _ (mkb v Cns t))|rewrite (ids_len _ _ Hs'); apply (cap_len _ _ Cn)]. }
    okb; [apply (IHs0 _ _ Hs' Ln Cn)|]. destruct x0 as [c3 lc3].
    okb; [|destruct x0 as [c5 lc5]; apply okr_Ok].
    apply (loop_ok _ (fun cx lc => b_load B (last_n (List.length env) c') cx lc) (fun cx => cx ++ last_n (List.length env) c')
             (fun cx => cx ++ env)); [| |exact H|exact Lc|exact Cc].
    + intros cx. rewrite !ids_app, He. reflexivity.
    + intros cx l HL. apply (co_load CO). rewrite app_length in HL. rewrite (ids_len _ _ He). lia.
  - (* Invoke *)
    cbn [lin_check] in L. sp L L0 L1.
    destruct (split_lastn 1 c) as [[c0 [|b [|]]]|] eqn:SP; try discriminate.
    sp L1 L1 La. sp L1 L1 Lty. sp L1 Li Lp.
    destruct (split_lastn_parts _ _ _ _ SP) as (E0 & Et & Ec & Ll).
    destruct (args_ok_lookup _ _ _ _ La) as (d & LT & XP).
    cbn [code_statement]. wrapok.
    okb. { apply vt_ok; [|exact HLc']. rewrite Hs, Ec. apply N.eqb_eq in Li. rewrite <- Li. apply In_ids_app_r. }
    rewrite LT. cbn [rbind]. destruct (Nat.leb _ 1); [apply okr_Ok|].
    okb; [exact XP|apply okr_Ok].
  - (* Literal *)
    cbn [lin_check] in L. cbn [cap_ok] in C. sp L L0 Ln. sp C C0 Cn.
    assert (Hs' : ids (c' ++ [mkb v Ext I64]) = ids (c ++ [mkb v Ext I64])) by (rewrite !ids_app, Hs; reflexivity).
    cbn [code_statement]. wrapok.
    okb. { apply vt_ok; [apply (In_ids_app_r c' (mkb v Ext I64))|rewrite (ids_len _ _ Hs'); apply (cap_len _ _ Cn)]. }
    okb; [apply (IHs0 _ _ Hs' Ln Cn)|]. destruct x0 as [c2 lc2]. apply okr_Ok.
  - (* Op *)
    cbn [lin_check] in L. cbn [cap_ok] in C. sp L L0 L1. sp L1 L1 Ln. sp L1 La Lb. sp C C0 Cn.
    assert (Hs' : ids (c' ++ [mkb v Ext I64]) = ids (c ++ [mkb v Ext I64])) by (rewrite !ids_app, Hs; reflexivity).
    assert (HL' : (List.length (c' ++ [mkb v Ext I64]) <= K)%nat) by (rewrite (ids_len _ _ Hs'); apply (cap_len _ _ Cn)).
    cbn [code_statement]. wrapok.
    okb. { apply vt_ok; [apply (In_ids_app_r c' (mkb v Ext I64))|exact HL']. }
    okb. { apply vt_ok; [apply In_ids_app_l; rewrite Hs; eapply has_In_ids_; exact La|exact HL']. }
    okb. { apply vt_ok; [apply In_ids_app_l; rewrite Hs; eapply has_In_ids_; exact Lb|exact HL']. }
    okb; [apply (IHs0 _ _ Hs' Ln Cn)|]. destruct x2 as [c2 lc2]. apply okr_Ok.
  - (* Print *)
    cbn [lin_check] in L. cbn [cap_ok] in C. sp L L0 L1. sp L1 Lv Ln. sp C C0 Cn.
    cbn [code_statement]. wrapok.
    okb; [apply vt_ok; [rewrite Hs; eapply has_In_ids_; exact Lv|exact HLc']|].
    okb; [apply (IHs0 _ _ Hs Ln Cn)|]. destruct x0 as [c2 lc2]. apply okr_Ok.
  - (* IfC *)
    cbn [lin_check] in L. cbn [cap_ok] in C. sp L L0 L1. sp L1 L1 Lel. sp L1 L1 Lth. sp L1 La Lb.
    sp C C0 C1. sp C1 Ct Ce.
    cbn [code_statement]. wrapok.
    okb; [apply vt_ok; [rewrite Hs; eapply has_In_ids_; exact La|exact HLc']|].
    okb. { destruct b as [b|]; [|apply okr_Ok]. okb; [apply vt_ok; [rewrite Hs; eapply has_In_ids_; exact Lb|exact HLc']|apply okr_Ok]. }
    okb; [apply (IHs2 _ _ Hs Lel Ce)|]. destruct x1 as [c2 lc2].
    okb; [apply (IHs1 _ _ Hs Lth Ct)|]. destruct x1 as [c3 lc3]. apply okr_Ok.
  - (* Exit *)
    cbn [lin_check] in L. sp L L0 Lv.
    cbn [code_statement]. wrapok.
    okb; [apply vt_ok; [rewrite Hs; eapply has_In_ids_; exact Lv|exact HLc']|apply okr_Ok].
Qed.
End G.

Section Prog.
Context {Code Temp : Type} (B : backend Code Temp).
Variable P : N.
Hypothesis OKB : backend_ok B.
Hypothesis CO : capacity_ok B P.
Variable K : nat.
Hypothesis HK : (2 * N.of_nat K + 2 <= P)%N.

Lemma translate_total (S : sigs) : forall defs,
  forallb (lin_check_def S) defs = true ->
  forallb (fun d => cap_ok K (dctx d) (dbody d)) defs = true ->
  forall lc, okr (translate B (sg_types S) defs lc).
Proof.
  induction defs as [|d r IH]; intros L C lc; cbn [translate]; [apply okr_Ok|].
  cbn [forallb] in L, C. apply andb_true_iff in L as [L1 L2]. apply andb_true_iff in C as [C1 C2].
  okb; [apply (code_statement_total B P OKB CO K HK S (dbody d) (dctx d) (dctx d) eq_refl L1 C1)|].
  destruct x as [c1 lc1]. okb; [apply (IH L2 C2)|]. destruct x as [c2 lc2]. apply okr_Ok.
Qed.

Theorem compile_total (p : prog) (lc : N) :
  lin_check_prog p = true -> has_defs p = true -> cap_ok_prog K p = true ->
  exists code lc', compile B p lc = Ok (code, main_arity p, lc').
Proof.
  intros L D C. unfold compile, has_defs, main_arity in *. destruct (pdefs p) as [|d0 r] eqn:E; [discriminate|].
  unfold lin_check_prog in L. unfold cap_ok_prog in C. rewrite E in L, C.
  destruct (translate_total (sigs_of p) (d0 :: r) L C lc) as [[code lc'] T].
  change (sg_types (sigs_of p)) with (ptypes p) in T. rewrite T. cbn [rbind fst snd]. eauto.
Qed.
End Prog.
