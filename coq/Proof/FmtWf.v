(* C16: what the formatter proofs share about parser-shaped trees ([wf], Proof/FmtDefs.v): the induction principles
   [wf_ty_ind] and [wf_ind], and the equations of the token printer [Tk_term] for the forms that carry lists. *)
From Coq Require Import List ZArith NArith String Ascii Bool Lia.
From SCC Require Import Base.Sexp Lang.SynUtil Lang.FunSyn Lang.SynInd Model.Printer Model.Parser Model.FmtClass Proof.FmtDefs.
Import ListNotations.
Open Scope string_scope.

Lemma wf_ty_ind (P : fty -> Prop) :
  P FI64 ->
  (forall n l, upper_ok n = true -> (forall t, In t l -> wf_ty t = true /\ P t) -> P (FDecl n l)) ->
  forall t, wf_ty t = true -> P t.
Proof.
  intros P0 Pd. induction t as [|n l IH] using fty_ind'; intros Hwf; [exact P0|].
  cbn [wf_ty] in Hwf. apply andb_prop in Hwf. destruct Hwf as [Hn Hl]. rewrite forallb_forall in Hl.
  rewrite Forall_forall in IH. apply Pd; [exact Hn|]. intros t Hin. split; [|apply IH]; auto.
Qed.

Lemma wf_dtor_inv s x targs args ty : wf (FDtor s x targs args ty) = true ->
  wf s = true /\ level s <= 2 /\ lower_ok x = true /\ forallb wf_ty targs = true /\ forallb wf args = true /\ ty = None.
Proof.
  cbn [wf]. intros H. rewrite !andb_true_iff in H. destruct H as (((((A & B) & C) & D) & E) & F).
  apply Nat.leb_le in B. destruct ty; [discriminate|]. auto 10.
Qed.
Lemma wf_case_inv s targs cls ty : wf (FCase s targs cls ty) = true ->
  wf s = true /\ level s <= 2 /\ forallb wf_ty targs = true /\ forallb (wf_clause FData) cls = true /\ ty = None.
Proof.
  cbn [wf]. intros H. rewrite !andb_true_iff in H. destruct H as ((((A & B) & C) & D) & E).
  apply Nat.leb_le in B. destruct ty; [discriminate|]. auto 10.
Qed.
Lemma is_none_eq {X} (o : option X) : is_none o = true -> o = None.
Proof. destruct o; [discriminate|reflexivity]. Qed.

Lemma guarded_all {X} (p : X -> bool) (R : X -> Prop) l :
  Forall (fun x => p x = true -> R x) l -> forallb p l = true -> forall x, In x l -> R x.
Proof. rewrite Forall_forall, forallb_forall. auto. Qed.

(* Each case gets [wf] of the whole term (whose annotations are therefore None), what [wf] says of its immediate
   parts, and the property of the subterms. *)
Section WfInd.
  Variable P : fterm -> Prop.
  Let Pcls (pol : fpol) (cls : list fclause) : Prop :=
    forall p x ns g body, In (FClause p x ns g body) cls -> wf_clause pol (FClause p x ns g body) = true /\ P body.
  Hypothesis P_var : forall v, lower_ok v = true -> P (FVar v None None).
  Hypothesis P_lit : forall z, lit_in_range z = true -> P (FLit z).
  Hypothesis P_op : forall a o b, wf (FOp a o b) = true -> level a <= 1 -> level b <= 1 -> P a -> P b -> P (FOp a o b).
  Hypothesis P_if : forall s a b th el, wf (FIfC s a b th el None) = true -> wf a = true ->
    P a -> match b with Some b' => P b' | None => True end -> P th -> P el -> P (FIfC s a b th el None).
  Hypothesis P_print : forall nl a next, P a -> P next -> P (FPrint nl a next None).
  Hypothesis P_let : forall v vty b t, wf (FLet v vty b t None) = true -> lower_ok v = true -> wf_ty vty = true ->
    level b <= 3 -> P b -> P t -> P (FLet v vty b t None).
  Hypothesis P_call : forall f args, wf (FCall f args None) = true -> lower_ok f = true ->
    (forall a, In a args -> P a) -> P (FCall f args None).
  Hypothesis P_ctor : forall x args, wf (FCtor x args None) = true -> upper_ok x = true ->
    (forall a, In a args -> P a) -> P (FCtor x args None).
  Hypothesis P_dtor : forall s x targs args, wf (FDtor s x targs args None) = true -> level s <= 2 ->
    lower_ok x = true -> forallb wf_ty targs = true -> P s -> (forall a, In a args -> P a) -> P (FDtor s x targs args None).
  Hypothesis P_case : forall s targs cls, wf (FCase s targs cls None) = true -> level s <= 2 ->
    forallb wf_ty targs = true -> P s -> Pcls FData cls -> P (FCase s targs cls None).
  Hypothesis P_new : forall cls, wf (FNew cls None) = true -> Pcls FCodata cls -> P (FNew cls None).
  Hypothesis P_label : forall l t, wf (FLabel l t None) = true -> lower_ok l = true -> P t -> P (FLabel l t None).
  Hypothesis P_goto : forall l t, wf (FGoto l t None) = true -> lower_ok l = true -> P t -> P (FGoto l t None).
  Hypothesis P_exit : forall a, wf (FExit a None) = true -> P a -> P (FExit a None).
  Hypothesis P_paren : forall t, wf (FParen t) = true -> P t -> P (FParen t).

  Theorem wf_ind t : wf t = true -> P t.
  Proof.
    revert t.
    apply (fterm_mutind (fun t => wf t = true -> P t)
             (fun cl => forall pol, wf_clause pol cl = true -> match cl with FClause _ _ _ _ body => P body end)).
    - intros v ty chi Hwf. cbn [wf] in Hwf. rewrite !andb_true_iff in Hwf. destruct Hwf as ((Hv & Hty) & Hchi).
      apply is_none_eq in Hty, Hchi. subst. now apply P_var.
    - intros z Hwf. now apply P_lit.
    - intros a o b Ha Hb Hwf. pose proof Hwf as Hwf0. cbn [wf] in Hwf. rewrite !andb_true_iff in Hwf.
      destruct Hwf as (((Wa & Wb) & La) & Lb). apply Nat.leb_le in La, Lb. apply P_op; auto.
    - intros s a b th el ty Ha Hb Hth Hel Hwf. pose proof Hwf as Hwf0. cbn [wf] in Hwf. rewrite !andb_true_iff in Hwf.
      destruct Hwf as ((((Wa & Wb) & Wth) & Wel) & Hty). apply is_none_eq in Hty. subst ty.
      apply P_if; auto. destruct b as [b|]; [|exact I]. now apply (Hb b).
    - intros nl a next ty Ha Hn Hwf. cbn [wf] in Hwf. rewrite !andb_true_iff in Hwf. destruct Hwf as ((Wa & Wn) & Hty).
      apply is_none_eq in Hty. subst ty. apply P_print; auto.
    - intros v vty bound body ty Hb Ht Hwf. pose proof Hwf as Hwf0. cbn [wf] in Hwf. rewrite !andb_true_iff in Hwf.
      destruct Hwf as (((((Hv & Hvty) & Wb) & Lb) & Wt) & Hty). apply is_none_eq in Hty. subst ty.
      apply Nat.leb_le in Lb. apply P_let; auto.
    - intros f args ret Hargs Hwf. pose proof Hwf as Hwf0. cbn [wf] in Hwf. rewrite !andb_true_iff in Hwf.
      destruct Hwf as ((Hf & Wargs) & Hty). apply is_none_eq in Hty. subst ret.
      apply P_call; auto. exact (guarded_all wf P args Hargs Wargs).
    - intros x args ty Hargs Hwf. pose proof Hwf as Hwf0. cbn [wf] in Hwf. rewrite !andb_true_iff in Hwf.
      destruct Hwf as ((Hx & Wargs) & Hty). apply is_none_eq in Hty. subst ty.
      apply P_ctor; auto. exact (guarded_all wf P args Hargs Wargs).
    - intros s x targs args ty Hs Hargs Hwf. pose proof Hwf as Hwf0. apply wf_dtor_inv in Hwf.
      destruct Hwf as (Ws & Ls & Hx & Hty & Wargs & ->). apply P_dtor; auto. exact (guarded_all wf P args Hargs Wargs).
    - intros s targs cls ty Hs Hcls Hwf. pose proof Hwf as Hwf0. apply wf_case_inv in Hwf.
      destruct Hwf as (Ws & Ls & Hty & Wcls & ->). apply P_case; auto.
      intros p x ns g body Hin. rewrite forallb_forall in Wcls. rewrite Forall_forall in Hcls.
      split; [now apply Wcls|]. exact (Hcls _ Hin FData (Wcls _ Hin)).
    - intros cls ty Hcls Hwf. pose proof Hwf as Hwf0. cbn [wf] in Hwf. rewrite !andb_true_iff in Hwf.
      destruct Hwf as (Wcls & Hty). apply is_none_eq in Hty. subst ty. apply P_new; auto.
      intros p x ns g body Hin. rewrite forallb_forall in Wcls. rewrite Forall_forall in Hcls.
      split; [now apply Wcls|]. exact (Hcls _ Hin FCodata (Wcls _ Hin)).
    - intros l t ty Ht Hwf. pose proof Hwf as Hwf0. cbn [wf] in Hwf. rewrite !andb_true_iff in Hwf.
      destruct Hwf as ((Hl & Wt) & Hty). apply is_none_eq in Hty. subst ty. apply P_label; auto.
    - intros l t ty Ht Hwf. pose proof Hwf as Hwf0. cbn [wf] in Hwf. rewrite !andb_true_iff in Hwf.
      destruct Hwf as ((Hl & Wt) & Hty). apply is_none_eq in Hty. subst ty. apply P_goto; auto.
    - intros a ty Ha Hwf. pose proof Hwf as Hwf0. cbn [wf] in Hwf. rewrite !andb_true_iff in Hwf.
      destruct Hwf as (Wa & Hty). apply is_none_eq in Hty. subst ty. apply P_exit; auto.
    - intros t Ht Hwf. apply P_paren; auto.
    - intros p x ns g body Hb pol Hw. apply Hb. cbn [wf_clause] in Hw. rewrite !andb_true_iff in Hw. tauto.
  Qed.
End WfInd.

Lemma Tk_ty_decl n l k : Tk_ty (FDecl n l) k = TUpper n :: opt_bracketed SLBrack SRBrack (map Tk_ty l) k.
Proof. reflexivity. Qed.
Lemma Tk_call f args r k : Tk_term (FCall f args r) k = TLower f :: bracketed SLPar SRPar (map Tk_term args) k.
Proof. reflexivity. Qed.
Lemma Tk_ctor x args r k : Tk_term (FCtor x args r) k = TUpper x :: opt_bracketed SLPar SRPar (map Tk_term args) k.
Proof. reflexivity. Qed.
Lemma Tk_dtor s x targs args ty k : Tk_term (FDtor s x targs args ty) k =
  Tk_term s (TSym SDot :: TLower x :: Tk_tyargs targs (opt_bracketed SLPar SRPar (map Tk_term args) k)).
Proof. reflexivity. Qed.
Lemma Tk_case s targs cls ty k : Tk_term (FCase s targs cls ty) k =
  Tk_term s (TSym SDot :: TKw KCase :: Tk_tyargs targs (bracketed SLBrace SRBrace (map Tk_clause cls) k)).
Proof. reflexivity. Qed.
Lemma Tk_new cls ty k : Tk_term (FNew cls ty) k = TKw KNew :: bracketed SLBrace SRBrace (map Tk_clause cls) k.
Proof. reflexivity. Qed.

