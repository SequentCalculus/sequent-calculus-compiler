(* C06, heap statements: from the invariant of the instrumented machine (InvA of Proof/HeapMore.v, in
   every reachable configuration by C09_program_heap_safe) and the agreement `heq` of Proof/X86HeapDefs.v to
   the hypotheses of the x86-64 refinement theorems of C09:
     hdr_bounds_x        headers lie in [0, 2^32]: no 64-bit count wraps;
     acq_ok_of_inv       the precondition of `acquire_block`;
     alloc_object_bridge `alloc_object_pre`, the acquired blocks (the same on both sides, pairwise distinct,
                         blocks of the heap region, not reachable from the roots), the agreement afterwards.
   The only numeric hypothesis: the frontier AFTER the allocation leaves room for the reserved block
   (`frontier + 64 <= HEAP_BASE + HEAP_SIZE`). *)
From Coq Require Import List ZArith NArith String Bool Lia Permutation.
From SCC Require Import Sem.AxSem Sem.X86Sem Proof.X86Mem Proof.X86MemFrame Proof.X86MemStoreChain
     Proof.X86HeapDefs Proof.X86HeapAcq Proof.X86HeapCongr.
From SCC Require Model.Heap Proof.HeapMore Proof.HeapTrace Proof.HeapRep Proof.HeapRepAlloc Proof.HeapBridge.
Import ListNotations.
Open Scope Z_scope.

Notation InvA := HeapMore.InvA.
Notation reach := HeapTrace.reach.

(* blocks of the abstract heap vs. blocks of the heap region *)
Lemma is_blk_blk x : is_blk x -> HeapMore.blk HEAP_BASE x.
Proof. intros (k & Hk & -> & _). exists k. unfold Heap.BLOCK. split; [exact Hk|lia]. Qed.
Lemma blk_is_blk x : HeapMore.blk HEAP_BASE x -> x + 64 <= LIMIT -> is_blk x.
Proof. intros (k & Hk & ->) H. exists k. unfold Heap.BLOCK, LIMIT in *. repeat split; lia. Qed.
Lemma frontier_blk s R hl fl cl : InvA HEAP_BASE s R hl fl cl -> HeapMore.blk HEAP_BASE (Heap.frontier s).
Proof.
  intros [_ X]. pose proof (HeapMore.x_sz _ _ _ _ _ X) as E.
  exists (Z.of_nat (List.length (hl ++ fl ++ cl))). split; [lia|]. lia.
Qed.
Lemma below_is_blk s R hl fl cl x :
  InvA HEAP_BASE s R hl fl cl -> Heap.frontier s <= LIMIT -> HeapMore.blk HEAP_BASE x -> x < Heap.frontier s -> is_blk x.
Proof.
  intros IA HF Hx Hlt. apply blk_is_blk; [exact Hx|].
  destruct (frontier_blk _ _ _ _ _ IA) as (n & Hn & En). destruct Hx as (k & Hk & Ek). unfold Heap.BLOCK in *. lia.
Qed.
Lemma list_is_blk s R hl fl cl x :
  InvA HEAP_BASE s R hl fl cl -> Heap.frontier s <= LIMIT -> In x (hl ++ fl ++ cl) -> is_blk x.
Proof.
  intros IA HF Hx. destruct (HeapBridge.list_blk _ _ _ _ _ _ _ IA Hx) as [B L]. eapply below_is_blk; eauto. lia.
Qed.
Lemma reach_is_blk s R hl fl cl b :
  InvA HEAP_BASE s R hl fl cl -> Heap.frontier s <= LIMIT -> reach (Heap.m s) R b -> is_blk b.
Proof.
  intros IA HF Hr. eapply list_is_blk; eauto. rewrite !in_app_iff. right. right.
  eapply HeapRep.reach_root_counted; [exact (proj1 IA)|exact Hr].
Qed.

(* the head of the deferred list is a block not above the frontier (the frontier itself when the list is empty) *)
Lemma free_blk s R hl fl cl :
  InvA HEAP_BASE s R hl fl cl -> HeapMore.blk HEAP_BASE (Heap.free s) /\ Heap.free s <= Heap.frontier s.
Proof.
  intros IA. destruct (HeapRep.free_cases _ _ _ _ _ (proj1 IA)) as [[E _]|Hf].
  - rewrite E. split; [eapply frontier_blk; eauto|lia].
  - destruct (HeapBridge.list_blk _ _ _ _ _ _ (Heap.free s) IA) as [B L]; [rewrite !in_app_iff; auto|]. split; [exact B|lia].
Qed.

Definition HB : Z := 4294967296.  (* 2^32 *)
Lemma hdr_bounds_x s R hl fl cl :
  InvA HEAP_BASE s R hl fl cl -> P3 s -> Heap.frontier s <= LIMIT -> Z.of_nat (List.length R) <= 1048576 ->
  forall x, is_blk x -> 0 <= Heap.hdr (Heap.m s x) <= HB.
Proof.
  intros IA HP HF HR x Hx.
  pose proof (HeapBridge.hdr_bounds HEAP_BASE s R hl fl cl IA HP ltac:(unfold HEAP_BASE; lia) x (is_blk_blk x Hx)) as H.
  pose proof (HeapBridge.in_use_bound _ _ _ _ _ _ IA) as U.
  unfold HB, LIMIT, HEAP_BASE, HEAP_SIZE in *. lia.
Qed.

Lemma pad3_in l c : In c (pad3 l) -> c = 0 \/ In c l.
Proof.
  unfold pad3. cbn [In]. intros [<-|[<-|[<-|[]]]].
  - destruct l; cbn; auto.
  - destruct l as [|a [|b r]]; cbn; auto.
  - destruct l as [|a [|b [|d r]]]; cbn; auto.
Qed.

Lemma acq_ok_of_inv a s R hl fl cl :
  InvA HEAP_BASE s R hl fl cl -> heq a s -> P3 s -> Heap.frontier s + 64 <= LIMIT -> Z.of_nat (List.length R) <= 1048576 ->
  acq_ok a.
Proof.
  intros IA HQ HP HF HR. pose proof (proj1 IA) as I.
  destruct HQ as (E1 & E2 & E3 & EM).
  destruct (HeapMore.heap_in_hl _ _ _ _ _ I) as (hl1 & Ehl).
  assert (Bh : is_blk (Heap.heap s)).
  { eapply list_is_blk; [exact IA|lia|]. rewrite Ehl. now left. }
  assert (BD : forall x, is_blk x -> min_int + 3 <= Heap.hdr (Heap.m a x) <= max_int).
  { intros x Hx. rewrite (proj1 (EM x Hx)).
    pose proof (hdr_bounds_x s R hl fl cl IA HP ltac:(lia) HR x Hx). unfold HB, min_int, max_int, two63 in *. lia. }
  unfold acq_ok. rewrite E1, E2. split; [exact Bh|].
  assert (Bf : is_blk (Heap.free s)) by (destruct (free_blk _ _ _ _ _ IA); apply blk_is_blk; [assumption|lia]).
  split; [apply is_blk_pos in Bf; lia|]. split; [intros _; exact Bf|].
  intros _ Hn0. rewrite (proj1 (EM _ Bf)) in Hn0.
  split; [|split; [exact BD|apply BD; exact Bf]].
  assert (Hfl : In (Heap.free s) fl).
  { destruct (HeapRep.free_cases _ _ _ _ _ I) as [[E _]|Hf]; auto.
    rewrite E, (Heap.i_fresh _ _ _ _ _ I (Heap.frontier s)) in Hn0 by lia. now cbn in Hn0. }
  rewrite (proj2 (EM _ Bf)). apply Forall_forall. intros c Hc.
  destruct (pad3_in _ _ Hc) as [->|Hin]; [now left|].
  destruct (Z.eq_dec c 0) as [->|Hc0]; [now left|right].
  eapply list_is_blk; [exact IA|lia|]. rewrite !in_app_iff. right. right.
  eapply HeapMore.child_counted; [exact I| |exact Hin|exact Hc0]. rewrite in_app_iff. now right.
Qed.

(* the chain of allocations of one object *)
Lemma store_other_frontier : forall fuel rest link s R0 hl fl cl,
  InvA HEAP_BASE s (link :: Heap.nz rest ++ R0) hl fl cl -> link <> 0 ->
  Heap.frontier s <= Heap.frontier (snd (Heap.store_other fuel rest link s)).
Proof.
  induction fuel as [|f IH]; intros rest link s R0 hl fl cl IA Hl; [cbn; lia|].
  destruct rest as [|x r]; [cbn; lia|].
  rewrite store_other_step by discriminate. set (rest := x :: r) in *.
  set (sl := Heap.pad 2 (Heap.lastn 2 rest) ++ [link]).
  destruct (HeapBridge.alloc_stage HEAP_BASE s _ _ hl fl cl sl IA (HeapBridge.stage_perm rest link R0 Hl ltac:(discriminate)))
    as (Ef & Hr0 & (hl' & fl' & cl' & IA') & Fm & _ & _).
  rewrite Ef. specialize (IH (Heap.butlastn 2 rest) (Heap.heap s) _ R0 hl' fl' cl' IA' Hr0). fold sl in IH. lia.
Qed.

Lemma chain_bridge : forall fuel rest link a s R0 hl fl cl (Q : Z -> Prop),
  InvA HEAP_BASE s (link :: Heap.nz rest ++ R0) hl fl cl -> link <> 0 -> heq a s -> P3 s ->
  Z.of_nat (List.length (link :: Heap.nz rest ++ R0)) <= 1048576 ->
  Heap.frontier (snd (Heap.store_other fuel rest link s)) + 64 <= LIMIT ->
  (forall b, Q b -> reach (Heap.m s) (link :: Heap.nz rest ++ R0) b) ->
  chain_pre fuel rest link a /\
  chain_acq fuel rest link a = chain_acq fuel rest link s /\
  NoDup (chain_acq fuel rest link s) /\
  (forall b, In b (chain_acq fuel rest link s) -> is_blk b /\ ~ Q b).
Proof.
  induction fuel as [|f IH]; intros rest link a s R0 hl fl cl Q IA Hl HQ HP HR HF HQr.
  { cbn. split; [exact I|]. split; [reflexivity|]. split; [apply NoDup_nil|]. intros b []. }
  destruct rest as [|x r].
  { cbn. split; [exact I|]. split; [reflexivity|]. split; [apply NoDup_nil|]. intros b []. }
  set (rest := x :: r) in *.
  set (sl := Heap.pad 2 (Heap.lastn 2 rest) ++ [link]).
  assert (Lsl : List.length sl = 3%nat).
  { unfold sl. rewrite app_length, HeapRepAlloc.length_pad; [reflexivity|]. rewrite HeapRepAlloc.length_lastn. lia. }
  pose proof (HeapBridge.stage_perm rest link R0 Hl ltac:(discriminate)) as HPm. fold sl in HPm.
  destruct (HeapBridge.alloc_stage HEAP_BASE s _ _ hl fl cl sl IA HPm)
    as (Ef & Hr0 & (hl' & fl' & cl' & IA') & Fm & Hnr & Hfwd).
  rewrite store_other_step in HF by discriminate. fold sl in HF. rewrite Ef in HF.
  pose proof (store_other_frontier f (Heap.butlastn 2 rest) (Heap.heap s) _ R0 hl' fl' cl' IA' Hr0) as Fm2.
  assert (AOK : acq_ok a) by (apply (acq_ok_of_inv a s _ hl fl cl IA HQ HP); [lia|exact HR]).
  destruct (heq_alloc a s sl HQ HP AOK Lsl) as (Efa & HQ' & HP').
  assert (HR' : Z.of_nat (List.length (Heap.heap s :: Heap.nz (Heap.butlastn 2 rest) ++ R0)) <= 1048576).
  { pose proof (HeapBridge.stage_roots_len rest link R0) as L. cbn [List.length] in *. lia. }
  destruct (IH (Heap.butlastn 2 rest) (Heap.heap s) (snd (Heap.alloc sl a)) (snd (Heap.alloc sl s)) R0 hl' fl' cl'
               (fun b => Q b \/ b = Heap.heap s) IA' Hr0 HQ' HP' HR' HF) as (CP & CA & ND & NQ).
  { intros b [Hb| ->]; [apply Hfwd, HQr, Hb|apply HeapTrace.reach_src; [now left|exact Hr0]]. }
  assert (Bh : is_blk (Heap.heap s)).
  { destruct (HeapMore.heap_in_hl _ _ _ _ _ (proj1 IA)) as (hl1 & Ehl).
    eapply list_is_blk; [exact IA|lia|]. rewrite Ehl. now left. }
  cbn [chain_pre chain_acq]. fold rest. fold sl.
  change (match rest with [] => True | _ :: _ => acq_ok a /\ chain_pre f (Heap.butlastn 2 rest) (fst (Heap.alloc sl a)) (snd (Heap.alloc sl a)) end)
    with (acq_ok a /\ chain_pre f (Heap.butlastn 2 rest) (fst (Heap.alloc sl a)) (snd (Heap.alloc sl a))).
  change (match rest with [] => [] | _ :: _ => Heap.heap a :: chain_acq f (Heap.butlastn 2 rest) (fst (Heap.alloc sl a)) (snd (Heap.alloc sl a)) end)
    with (Heap.heap a :: chain_acq f (Heap.butlastn 2 rest) (fst (Heap.alloc sl a)) (snd (Heap.alloc sl a))).
  change (match rest with [] => [] | _ :: _ => Heap.heap s :: chain_acq f (Heap.butlastn 2 rest) (fst (Heap.alloc sl s)) (snd (Heap.alloc sl s)) end)
    with (Heap.heap s :: chain_acq f (Heap.butlastn 2 rest) (fst (Heap.alloc sl s)) (snd (Heap.alloc sl s))).
  rewrite Efa, Ef. destruct HQ as (E1 & _). rewrite E1.
  split; [split; assumption|]. split; [now rewrite CA|]. split.
  - constructor; [|exact ND]. intros Hin. destruct (NQ _ Hin) as [_ N]. apply N. now right.
  - intros b [<-|Hb].
    + split; [exact Bh|]. intros Hq. apply Hnr. now apply HQr.
    + destruct (NQ b Hb) as [B N]. split; [exact B|]. intros Hq. apply N. now left.
Qed.

Theorem alloc_object_bridge fields a s R R0 hl fl cl :
  InvA HEAP_BASE s R hl fl cl -> heq a s -> P3 s -> Permutation R (Heap.nz fields ++ R0) -> fields <> [] ->
  Z.of_nat (List.length R) < 1048576 ->
  Heap.frontier (snd (Heap.alloc_object fields s)) + 64 <= LIMIT ->
  alloc_object_pre fields a /\
  alloc_object_acq fields a = alloc_object_acq fields s /\
  NoDup (alloc_object_acq fields s) /\
  (forall b, In b (alloc_object_acq fields s) -> is_blk b /\ ~ reach (Heap.m s) R b).
Proof.
  intros IA HQ HP HPm Hne HR HF.
  set (sl := Heap.pad 3 (Heap.lastn 3 fields)).
  assert (Lsl : List.length sl = 3%nat).
  { unfold sl. rewrite HeapRepAlloc.length_pad; [reflexivity|]. rewrite HeapRepAlloc.length_lastn. lia. }
  pose proof (HeapBridge.first_perm fields R R0 HPm) as HP1. fold sl in HP1.
  destruct (HeapBridge.alloc_stage HEAP_BASE s _ _ hl fl cl sl IA HP1)
    as (Ef & Hr0 & (hl' & fl' & cl' & IA') & Fm & Hnr & Hfwd).
  assert (ES : Heap.alloc_object fields s = Heap.store_other (List.length fields) (Heap.butlastn 3 fields) (fst (Heap.alloc sl s)) (snd (Heap.alloc sl s))).
  { unfold Heap.alloc_object. fold sl. destruct fields; [contradiction|]. destruct (Heap.alloc sl s). reflexivity. }
  rewrite ES, Ef in HF.
  pose proof (store_other_frontier (List.length fields) (Heap.butlastn 3 fields) (Heap.heap s) _ R0 hl' fl' cl' IA' Hr0) as Fm2.
  assert (AOK : acq_ok a) by (apply (acq_ok_of_inv a s _ hl fl cl IA HQ HP); [lia|lia]).
  destruct (heq_alloc a s sl HQ HP AOK Lsl) as (Efa & HQ' & HP').
  assert (HR' : Z.of_nat (List.length (Heap.heap s :: Heap.nz (Heap.butlastn 3 fields) ++ R0)) <= 1048576).
  { apply Permutation_length in HP1. rewrite app_length in HP1. unfold sl in HP1. rewrite HeapMore.nz_pad in HP1.
    cbn [List.length]. rewrite app_length in *. lia. }
  destruct (chain_bridge (List.length fields) (Heap.butlastn 3 fields) (Heap.heap s) (snd (Heap.alloc sl a)) (snd (Heap.alloc sl s)) R0 hl' fl' cl'
              (fun b => reach (Heap.m s) R b \/ b = Heap.heap s) IA' Hr0 HQ' HP' HR' HF) as (CP & CA & ND & NQ).
  { intros b [Hb| ->]; [apply Hfwd, Hb|apply HeapTrace.reach_src; [now left|exact Hr0]]. }
  assert (Bh : is_blk (Heap.heap s)).
  { destruct (HeapMore.heap_in_hl _ _ _ _ _ (proj1 IA)) as (hl1 & Ehl).
    eapply list_is_blk; [exact IA|lia|]. rewrite Ehl. now left. }
  unfold alloc_object_pre, alloc_object_acq. fold sl. destruct fields as [|x0 f0]; [contradiction|].
  set (fields := x0 :: f0) in *. rewrite Efa, Ef. destruct HQ as (E1 & _). rewrite E1.
  split; [split; assumption|]. split; [now rewrite CA|]. split.
  - constructor; [|exact ND]. intros Hin. destruct (NQ _ Hin) as [_ N]. apply N. now right.
  - intros b [<-|Hb].
    + split; [exact Bh|exact Hnr].
    + destruct (NQ b Hb) as [B N]. split; [exact B|]. intros Hq. apply N. now left.
Qed.
