(* Forward simulation of the code generators (C06 x86-64, C07 AArch64): what does not depend on the back end.
   - the two program fragments: `int_frag` (every variable `ext i64`; Substitute / Call / Literal / Op / PrintI64 /
     IfC / Exit) and `cf_frag` (in addition closures without captured variables: Create with an empty
     environment, Invoke), `plain_names` / `plain_types` (no label of a definition or of a type starts with '#':
     such labels are outside the uniqueness check of asm_wf), `entry_int`;
   - observations (`good`, `not_oof`);
   - facts about the linear machine's environments (lookup / lookups / bind) and about the linearity checker's
     signatures used by the progress part of the simulation. *)
From Coq Require Import List ZArith NArith String Ascii Bool Lia.
From SCC Require Import Base.Sexp Lang.AxSyn Sem.AxSem Model.Backend Model.Linearize Model.LinCheck Proof.LinBasics.
From SCC Require Sem.X86Wf.
Import ListNotations.
Open Scope Z_scope.
Open Scope list_scope.

(* the test `match l with String "#" _ => true | _ => false end`; the three assembler-level checkers
   (Sem/X86Wf.v, A64Wf.v, RVWf.v) each define it under the name is_hash_label; the x86 one is taken here so that
   the x86-64 development, which states its label hypotheses with it, sees no other name (the others are
   convertible to it) *)
Notation hash_name := SCC.Sem.X86Wf.is_hash_label (only parsing).
Lemma hash_name_app_ s : hash_name (s +++ "_") = true -> hash_name s = true.
Proof. destruct s as [|c s]; cbn; auto. Qed.
Lemma hash_name_sub f y : hash_name f = false -> hash_name (f +++ "_" +++ y) = false.
Proof. destruct f as [|c f]; cbn; auto. Qed.

Definition is_int_binding (b : binding) : bool :=
  match bchi b, bty b with Ext, I64 => true | _, _ => false end.
Definition ctx_int (c : ctx) : bool := forallb is_int_binding c.

Fixpoint stmt_int (s : stmt) : bool :=
  match s with
  | Substitute re next => forallb (fun p : binding * ident => is_int_binding (fst p)) re && stmt_int next
  | Call _ _ | Exit _ => true
  | Literal _ _ next | Op _ _ _ _ next | PrintI64 _ _ next => stmt_int next
  | IfC _ _ _ t e => stmt_int t && stmt_int e
  | Let _ _ _ _ _ | Switch _ _ _ | Create _ _ _ _ _ | Invoke _ _ _ _ => false
  end.
Definition def_int (d : def) : bool := ctx_int (dctx d) && stmt_int (dbody d).
Definition int_frag (p : prog) : bool := forallb def_int (pdefs p).
(* no definition is named like a statement-boundary marker ('#...'): such labels are outside the
   uniqueness check of asm_wf; no name produced by the parser or by the pipeline starts with '#' *)
Definition plain_names (p : prog) : bool := forallb (fun d => negb (hash_name (show_ident (dname d)))) (pdefs p).

Lemma ctx_int_nth c i b : ctx_int c = true -> nth_error c i = Some b -> bchi b = Ext /\ bty b = I64.
Proof.
  intros H Hn. unfold ctx_int in H. rewrite forallb_forall in H. specialize (H b (nth_error_In _ _ Hn)).
  unfold is_int_binding in H. destruct (bchi b), (bty b); try discriminate; auto.
Qed.

(* the closure fragment: integers and closures without captured variables *)
Definition is_cf_binding (b : binding) : bool :=
  match bchi b, bty b with Ext, I64 => true | Cns, Decl _ => true | _, _ => false end.
Definition ctx_cf (c : ctx) : bool := forallb is_cf_binding c.
Definition is_nil {X} (l : list X) : bool := match l with [] => true | _ => false end.
Fixpoint stmt_cf (s : stmt) : bool :=
  match s with
  | Substitute re next => forallb (fun p : binding * ident => is_cf_binding (fst p)) re && stmt_cf next
  | Call _ _ | Exit _ | Invoke _ _ _ _ => true
  | Literal _ _ next | Op _ _ _ _ next | PrintI64 _ _ next => stmt_cf next
  | IfC _ _ _ t e => stmt_cf t && stmt_cf e
  | Create _ _ (Some []) cls next =>
      negb (is_nil cls)
      && (fix go (cls : list (ident * ctx * stmt)) : bool :=
            match cls with
            | [] => true
            | (_, cx, b) :: r => ctx_cf cx && stmt_cf b && go r
            end) cls
      && stmt_cf next
  | _ => false
  end.
Definition clauses_cf (cls : list clause) : bool := forallb (fun c => ctx_cf (cl_ctx c) && stmt_cf (cl_body c)) cls.
Lemma stmt_cf_create v t env cls next :
  stmt_cf (Create v t env cls next) = true -> env = Some [] /\ cls <> [] /\ clauses_cf cls = true /\ stmt_cf next = true.
Proof.
  cbn [stmt_cf]. destruct env as [[|b env]|]; try discriminate. intros H.
  apply andb_true_iff in H as [H N]. apply andb_true_iff in H as [E G].
  split; [reflexivity|]. split; [destruct cls; [discriminate|congruence]|]. split; [|exact N].
  clear E N. induction cls as [|[[x cx] b] r IH]; [reflexivity|]. cbn [clauses_cf forallb cl_ctx cl_body fst snd].
  apply andb_true_iff in G as [G1 G2]. rewrite G1. exact (IH G2).
Qed.
Definition def_cf (d : def) : bool := ctx_cf (dctx d) && stmt_cf (dbody d).
Definition cf_frag (p : prog) : bool := forallb def_cf (pdefs p).
(* type names, like definition names, do not start with '#' (their labels are subject to asm_wf's uniqueness check) *)
Definition plain_types (p : prog) : bool :=
  forallb (fun d => negb (hash_name (label_of_type_name (show_ident (tname d))))) (ptypes p).
(* the entry definition takes integers (the arguments of asm_main) *)
Definition entry_int (p : prog) : bool := match pdefs p with d :: _ => ctx_int (dctx d) | [] => true end.

(* literals are 64-bit values (i64 in the Rust AST; Z in the model) *)
Definition lit_i64 (z : Z) : bool := (min_int <=? z) && (z <=? max_int).
Fixpoint stmt_lits (s : stmt) : bool :=
  match s with
  | Literal n _ next => lit_i64 n && stmt_lits next
  | Substitute _ next | Op _ _ _ _ next | PrintI64 _ _ next | Let _ _ _ _ next => stmt_lits next
  | IfC _ _ _ t e => stmt_lits t && stmt_lits e
  | Call _ _ | Exit _ | Invoke _ _ _ _ => true
  | Switch _ _ cls =>
      (fix go (cls : list (ident * ctx * stmt)) : bool :=
         match cls with [] => true | (_, _, b) :: r => stmt_lits b && go r end) cls
  | Create _ _ _ cls next =>
      (fix go (cls : list (ident * ctx * stmt)) : bool :=
         match cls with [] => true | (_, _, b) :: r => stmt_lits b && go r end) cls && stmt_lits next
  end.
Definition clauses_lits (cls : list clause) : bool := forallb (fun c => stmt_lits (cl_body c)) cls.
Lemma stmt_lits_create v t env cls next :
  stmt_lits (Create v t env cls next) = true -> clauses_lits cls = true /\ stmt_lits next = true.
Proof.
  cbn [stmt_lits]. intros H. apply andb_true_iff in H as [G N]. split; [|exact N].
  clear N. induction cls as [|[[x cx] b] r IH]; [reflexivity|]. cbn [clauses_lits forallb cl_body snd].
  apply andb_true_iff in G as [G1 G2]. rewrite G1. exact (IH G2).
Qed.
(* every literal of the program, and every argument, fits 64 bits *)
Definition lits_i64 (p : prog) : bool := forallb (fun d => stmt_lits (dbody d)) (pdefs p).
Definition args_i64 (args : list Z) : bool := forallb lit_i64 args.

Definition good (o : obs) : Prop := (exists z, snd o = OExit z) \/ (exists w, snd o = OUndef w).
Lemma not_good_stuck out w : ~ good (finish out (OStuck w)).
Proof. intros [(z & H)|(z & H)]; discriminate. Qed.
Lemma not_good_fuel out : ~ good (finish out OOutOfFuel).
Proof. intros [(z & H)|(z & H)]; discriminate. Qed.
Definition not_oof (o : obs) : Prop := snd o <> OOutOfFuel.
Lemma good_not_oof o : good o -> not_oof o.
Proof. intros [(z & H)|(z & H)] E; congruence. Qed.

Lemma lookup_nth (e : env) x v :
  AxSem.lookup e x = Some v -> exists i y, nth_error e i = Some (y, v) /\ idn y = x.
Proof.
  induction e as [|[y w] e IH]; cbn; [discriminate|].
  destruct (N.eqb_spec (idn y) x) as [E|E].
  - intros H; inversion H; subst. exists O, y. cbn. auto.
  - intros H. destruct (IH H) as (i & y' & Hn & Hy). exists (S i), y'. cbn. auto.
Qed.
Lemma nth_lookup (e : env) i y v :
  NoDup (env_ids e) -> nth_error e i = Some (y, v) -> AxSem.lookup e (idn y) = Some v.
Proof.
  revert i. induction e as [|[y0 w] e IH]; intros i ND H; [destruct i; discriminate|].
  cbn in ND. inversion ND as [|? ? NI ND']; subst. destruct i as [|i]; cbn in H; cbn [AxSem.lookup].
  - inversion H; subst. now rewrite N.eqb_refl.
  - destruct (N.eqb_spec (idn y0) (idn y)) as [E|E]; [|eauto].
    exfalso. apply NI. rewrite E. apply nth_error_In in H. unfold env_ids.
    apply (in_map (fun p : ident * value => idn (fst p))) in H. exact H.
Qed.
Lemma env_ctx_nth c e i y v :
  env_ids e = ids c -> nth_error e i = Some (y, v) -> exists b, nth_error c i = Some b /\ idn (bvar b) = idn y.
Proof.
  intros E H. assert (H1 : nth_error (env_ids e) i = Some (idn y)).
  { unfold env_ids. now rewrite (map_nth_error _ _ _ H). }
  rewrite E in H1. unfold ids in H1. destruct (nth_error c i) as [b|] eqn:Hc.
  - rewrite (map_nth_error _ _ _ Hc) in H1. inversion H1. eauto.
  - apply nth_error_None in Hc. assert (H2 : (i < List.length (map (fun b => idn (bvar b)) c))%nat) by (apply nth_error_Some; congruence).
    rewrite map_length in H2. lia.
Qed.

Lemma lookups_nth (e : env) : forall xs vs j x,
  lookups e xs = Some vs -> nth_error xs j = Some x -> exists v, nth_error vs j = Some v /\ lookup_id e x = Some v.
Proof.
  induction xs as [|x0 xs IH]; intros vs j x H Hj; [destruct j; discriminate|].
  cbn [lookups] in H. destruct (lookup_id e x0) as [v0|] eqn:L0; [|discriminate].
  destruct (lookups e xs) as [vr|] eqn:LR; [|discriminate]. inversion H; subst vs.
  destruct j as [|j]; cbn in Hj |- *.
  - inversion Hj; subst. eauto.
  - eapply IH; eauto.
Qed.
Lemma bind_nth : forall (xs : list ident) (vs : list value) (e' : env) j x v,
  bind xs vs = Some e' -> nth_error e' j = Some (x, v) -> nth_error xs j = Some x /\ nth_error vs j = Some v.
Proof.
  induction xs as [|x0 xs IH]; intros [|v0 vs] e' j x v H Hj; cbn [bind] in H; try discriminate.
  - inversion H; subst. destruct j; discriminate.
  - destruct (bind xs vs) as [er|] eqn:B; [|discriminate]. inversion H; subst e'.
    destruct j as [|j]; cbn in Hj |- *.
    + inversion Hj; subst. auto.
    + eapply IH; eauto.
Qed.
Lemma bind_ids : forall (xs : list ident) (vs : list value) (e' : env),
  bind xs vs = Some e' -> map fst e' = xs.
Proof.
  induction xs as [|x0 xs IH]; intros [|v0 vs] e' H; cbn [bind] in H; try discriminate.
  - now inversion H.
  - destruct (bind xs vs) as [er|] eqn:B; [|discriminate]. inversion H; subst e'. cbn. f_equal. eauto.
Qed.
Lemma bind_length : forall (xs : list ident) (vs : list value) (e' : env), bind xs vs = Some e' -> List.length xs = List.length vs.
Proof.
  induction xs as [|x xs IH]; intros [|v vs] e' H; cbn [bind] in H; try discriminate; [reflexivity|].
  destruct (bind xs vs) eqn:B; [|discriminate]. cbn. f_equal. eauto.
Qed.
Lemma bind_total : forall (xs : list ident) (vs : list value), List.length xs = List.length vs -> exists e', bind xs vs = Some e'.
Proof.
  induction xs as [|x xs IH]; intros [|v vs] H; cbn in H; try discriminate; cbn [bind]; [eauto|].
  destruct (IH vs) as (e' & ->); [lia|]. eauto.
Qed.

Lemma lookup_of_in (e : env) x : In x (env_ids e) -> exists v, AxSem.lookup e x = Some v.
Proof.
  induction e as [|[y w] e IH]; cbn; [tauto|]. intros [E|H].
  - rewrite E, N.eqb_refl. eauto.
  - destruct (N.eqb (idn y) x); eauto.
Qed.
Lemma lookups_total (e : env) : forall xs, (forall x, In x xs -> exists v, lookup_id e x = Some v) ->
  exists vs, lookups e xs = Some vs /\ List.length vs = List.length xs.
Proof.
  induction xs as [|x xs IH]; intros H; cbn [lookups]; [exists []; auto|].
  destruct (H x (or_introl eq_refl)) as (v & ->). destruct IH as (vs & -> & L); [intros; apply H; now right|].
  exists (v :: vs). cbn. auto.
Qed.
Lemma lookup_label_find_def p l ps :
  lookup_label (sigs_of p) l = Some ps -> exists d, find_def p l = Some d /\ dctx d = ps.
Proof.
  unfold lookup_label, sigs_of, find_def; cbn [sg_labels]. induction (pdefs p) as [|d r IH]; cbn [map find]; [discriminate|].
  cbn [fst]. destruct (ident_eqb (dname d) l); [|exact IH]. cbn. intros E; inversion E. eauto.
Qed.

Lemma lin_nodup S c s : lin_check S c s = true -> NoDup (ids c).
Proof. intros H. destruct s; cbn [lin_check] in H; apply andb_true_iff in H as [H _]; now apply nodupb_NoDup. Qed.
Lemma sig_match_nth : forall (a s : ctx) i x, sig_match a s = true -> nth_error a i = Some x ->
  exists y, nth_error s i = Some y /\ bchi x = bchi y /\ bty x = bty y.
Proof.
  induction a as [|x0 a IH]; intros [|y0 s] i x H Hi; cbn [sig_match] in H; try discriminate; [destruct i; discriminate|].
  apply andb_true_iff in H as [K H]. apply kt_eqb_eq in K. destruct i as [|i]; cbn [nth_error] in *.
  - inversion Hi; subst. eauto.
  - eauto.
Qed.
Lemma sig_match_join a b s0 : sig_match a s0 = true -> sig_match b s0 = true -> sig_match a b = true.
Proof.
  rewrite !sig_match_iff. unfold same_kt. intros A B. revert b B.
  induction A as [|x y a s1 [K T] _ IH]; intros b B; inversion B as [|x' y' b' s1' [K' T'] B']; subst; constructor.
  - split; congruence.
  - auto.
Qed.

(* closures: clauses against the declared destructors *)
Lemma find_clause_pos : forall cls xs tag cl i,
  cls_sig cls xs = true -> find_clause cls tag = Some cl ->
  exists k x, nth_error cls k = Some cl /\ nth_error xs k = Some x /\
              xtor_position xs tag i = Ok (i + N.of_nat k)%N /\
              find (fun x => ident_eqb (xname x) tag) xs = Some x /\ sig_match (cl_ctx cl) (xargs x) = true.
Proof.
  induction cls as [|c cr IH]; intros [|x xr] tag cl i CS FC; cbn [cls_sig] in CS; try discriminate.
  apply andb_true_iff in CS as [CS CSr]. apply andb_true_iff in CS as [EQ SM]. apply ident_eqb_eq in EQ.
  unfold find_clause in FC. cbn [find xtor_position] in *. rewrite <- EQ.
  destruct (ident_eqb (cl_xtor c) tag) eqn:T.
  - inversion FC; subst cl. exists O, x. repeat split; auto. f_equal. lia.
  - destruct (IH xr tag cl (i + 1)%N CSr FC) as (k & x' & A & B & C & D & E).
    exists (S k), x'. repeat split; auto. rewrite C. f_equal. lia.
Qed.
Lemma cls_sig_length : forall cls xs, cls_sig cls xs = true -> List.length cls = List.length xs.
Proof.
  induction cls as [|c cr IH]; intros [|x xr] H; cbn [cls_sig] in H; try discriminate; [reflexivity|].
  apply andb_true_iff in H as [_ H]. cbn. f_equal. auto.
Qed.
Lemma find_clause_total : forall cls xs tag x,
  cls_sig cls xs = true -> find (fun x => ident_eqb (xname x) tag) xs = Some x -> exists cl, find_clause cls tag = Some cl.
Proof.
  induction cls as [|c cr IH]; intros [|x0 xr] tag x CS FX; cbn [cls_sig] in CS; try discriminate.
  apply andb_true_iff in CS as [CS CSr]. apply andb_true_iff in CS as [EQ _]. apply ident_eqb_eq in EQ.
  unfold find_clause. cbn [find] in *. rewrite EQ. destruct (ident_eqb (xname x0) tag); [eauto|].
  exact (IH xr tag x CSr FX).
Qed.

Lemma NoDup_app_head {X} (a b : list X) : NoDup (a ++ b) -> NoDup a.
Proof.
  induction a as [|x a IH]; cbn; [constructor|]. intros H. inversion H; subst. constructor; auto.
  intros I. apply H2. apply in_app_iff. now left.
Qed.
Lemma NoDup_app_tail {X} (a b : list X) : NoDup (a ++ b) -> NoDup b.
Proof. induction a as [|x a IH]; cbn; auto. intros H. inversion H; auto. Qed.
Lemma nth_error_mid {X} (a : list X) x b : nth_error (a ++ x :: b) (List.length a) = Some x.
Proof. rewrite nth_error_app2 by lia. now rewrite Nat.sub_diag. Qed.
Lemma split_last1_inv {X} (l : list X) l0 x : AxSem.split_last 1 l = Some (l0, [x]) -> l = l0 ++ [x].
Proof.
  unfold AxSem.split_last. destruct (Nat.leb 1 (List.length l)); [|discriminate]. intros H. inversion H.
  rewrite <- (firstn_skipn (List.length l - 1) l) at 1. reflexivity.
Qed.
Lemma split_last1_app {X} (l0 : list X) x : AxSem.split_last 1 (l0 ++ [x]) = Some (l0, [x]).
Proof.
  unfold AxSem.split_last. rewrite app_length. cbn [List.length]. replace (Nat.leb 1 (List.length l0 + 1)) with true by (symmetry; apply Nat.leb_le; lia).
  replace (List.length l0 + 1 - 1)%nat with (List.length l0) by lia.
  rewrite firstn_app, firstn_all, Nat.sub_diag, skipn_app, skipn_all, Nat.sub_diag. cbn. now rewrite app_nil_r.
Qed.
Lemma split_last0 (c : ctx) : Backend.split_last 0 c = Ok (c, []).
Proof. unfold Backend.split_last. cbn [Nat.leb]. rewrite Nat.sub_0_r, firstn_all, skipn_all. reflexivity. Qed.
