(* C07, forward simulation of the AArch64 code generator: the state relation between a
   configuration of the linear AxCut machine and a state of Sem/A64Sem.v, the footprint of straight-line
   code (what code that never writes SP, stores only into the spill area and neither calls nor returns
   leaves alone), and execution inside an image up to a final observation.  Mirrors Proof/X86SimRel.v.

   AArch64 specifics: position i owns X(2i+4), X(2i+5) for i < 13 - so the 13th variable's value lives in
   internal register 29 = X30, the LINK register - and spill slots 2i-25, 2i-24 from position 13 on (slot 0
   is the scratch slot of `rem`); the scratch registers are X2, X3 (and X10 evacuated to slot 0); SP must be
   0 mod 16 at every sp-relative access, so the body runs with sp = 0 (mod 16); literals are synthesised
   from half-words, remainders by SDIV+MSUB and conditions from the NZCV flags, all of which are exact on
   64-bit values only: the relation carries `in64 z` for every integer. *)
From Coq Require Import List ZArith NArith String Bool Lia FMapPositive.
From SCC Require Import Lang.AxSyn Sem.AxSem Model.Backend Model.A64 Sem.A64Sem Proof.A64State Proof.A64Imm
     Proof.A64Sel Proof.A64Exec Proof.SubstGraph Proof.SubstBackends Proof.A64Subst Proof.A64Print.
From SCC Require Export Proof.SimFrag.
Import ListNotations.
Open Scope Z_scope.
Open Scope list_scope.

(* everything but registers, flags and spill slots: heap, output, the stack outside the spill
   area (in particular the words above it, where the prologue saved X19-X30) *)
Definition frame_eq (s s' : astate) (sp : Z) : Prop :=
  heap s' = heap s /\ out s' = out s /\
  (forall k, (forall p, slot_ok p -> k <> key (slot_addr sp p)) -> PM.find k (stack s') = PM.find k (stack s)).
Lemma frame_eq_refl s sp : frame_eq s s sp.
Proof. repeat split; auto. Qed.
Lemma frame_eq_trans s1 s2 s3 sp : frame_eq s1 s2 sp -> frame_eq s2 s3 sp -> frame_eq s1 s3 sp.
Proof.
  intros (A1 & C1 & E1) (A2 & C2 & E2). repeat split; try congruence.
  intros k Hk. rewrite E2, E1; auto.
Qed.
Lemma frame_eq_rset s sp r v : frame_eq s (rset s r v) sp.
Proof. destruct r; repeat split; auto. Qed.
Lemma frame_eq_set_flags s sp f : frame_eq s (set_flags s f) sp.
Proof. repeat split; auto. Qed.
Lemma frame_eq_sset s sp p v : slot_ok p -> frame_eq s (sset s sp p v) sp.
Proof.
  intros P. repeat split; auto. intros k Hk. unfold sset. cbn [stack].
  destruct v; [apply PM.gso|apply PM.gro]; apply Hk; exact P.
Qed.

(* an offset from sp that addresses a spill slot *)
Definition slot_off (i : Z) : bool := (0 <=? i) && (i <? SPILL_SPACE) && (i mod 8 =? 0).
Lemma slot_off_inv i : slot_off i = true -> exists p, slot_ok p /\ i = stack_offset p.
Proof.
  unfold slot_off, slot_ok, stack_offset. rewrite !andb_true_iff, Z.leb_le, Z.ltb_lt, Z.eqb_eq. intros [[A B] C].
  change SPILL_SPACE with 2048 in *. change SPILL_NUM with 256%N.
  exists (Z.to_N (255 - i / 8)). Z.div_mod_to_equations. lia.
Qed.
Lemma slot_off_stack_offset p : slot_ok p -> slot_off (stack_offset p) = true.
Proof.
  unfold slot_ok, slot_off, stack_offset. change SPILL_NUM with 256%N. change SPILL_SPACE with 2048. intros P.
  rewrite !andb_true_iff, Z.leb_le, Z.ltb_lt, Z.eqb_eq. Z.div_mod_to_equations. lia.
Qed.

(* instructions that do not write SP, store only into the spill area and neither call, return, push nor pop *)
Definition nsp (r : areg) : bool := match r with SP => false | _ => true end.
Definition local_instr (c : acode) : bool :=
  match c with
  | ADD d _ _ | SUB d _ _ | MUL d _ _ | SDIV d _ _ | MSUB d _ _ _ | ADDI d _ _ | SUBI d _ _
  | MOVR d _ | MOVZ d _ _ | MOVN d _ _ | MOVK d _ _ | ADR d _ | LDR d _ _ => nsp d
  | STR _ b i => match b with SP => slot_off i | _ => false end
  | BL _ | RET | STP_PRE_INDEX _ _ _ _ | LDP_POST_INDEX _ _ _ _ => false
  | _ => true
  end.
Definition local_code (cs : list acode) : bool := forallb local_instr cs.
Lemma local_code_app a b : local_code (a ++ b) = local_code a && local_code b.
Proof. apply forallb_app. Qed.

Definition sres (r : step_res) : option astate :=
  match r with Next s | Jump s _ | Undefd _ s => Some s | _ => None end.

Lemma nsp_ne r : nsp r = true -> r <> SP.
Proof. destruct r; cbn; congruence. Qed.

Ltac crunch :=
  repeat match goal with
         | |- sres (match ?x with _ => _ end) = _ -> _ => destruct x eqn:?; cbn [sres]; try discriminate
         | |- sres (if ?x then _ else _) = _ -> _ => destruct x eqn:?; cbn [sres]; try discriminate
         end.
(* closes `sres (step ...) = Some s' -> frame_ok s' sp /\ frame_eq s s' sp` once [crunch] has exposed the result state *)
Ltac frame_kept F :=
  let E := fresh "E" in
  cbn [sres]; intros E; inversion E; subst;
  (split; [first [exact F | apply frame_ok_set_flags; exact F | apply frame_ok_sset; exact F
                 | apply frame_ok_rset; [apply nsp_ne; assumption|exact F] ]
          | first [ apply frame_eq_refl | apply frame_eq_rset | apply frame_eq_set_flags | (apply frame_eq_sset; assumption) ] ]).

Lemma step_local im c s sp s' :
  local_instr c = true -> frame_ok s sp -> sres (step im c s) = Some s' -> frame_ok s' sp /\ frame_eq s s' sp.
Proof.
  intros L F.
  destruct c; cbn [local_instr] in L; try discriminate; cbn [step];
    unfold arith3, arith_imm, need, withm, cond_jump, goto_addr; unfold goto_label.
  all: try (crunch; frame_kept F; fail).
  - unfold ea, need. crunch. all: unfold withm; crunch; frame_kept F.
  - (* STR into a spill slot *)
    destruct b; try discriminate. destruct (slot_off_inv i L) as (p & P & ->).
    rewrite (ea_sp s sp) by exact F. unfold withm. rewrite mstore_slot by (auto; apply F). frame_kept F.
Qed.

Lemma run_straight_local im cs : forall s sp s',
  local_code cs = true -> frame_ok s sp -> run_straight im cs s = MOk s' -> frame_ok s' sp /\ frame_eq s s' sp.
Proof.
  induction cs as [|c cs IH]; intros s sp s' L F E; cbn in *.
  - inversion E; subst. split; [exact F|apply frame_eq_refl].
  - apply andb_true_iff in L as [L0 L1]. destruct (step im c s) as [s1| | | |] eqn:St; try discriminate.
    destruct (step_local im c s sp s1 L0 F) as [F1 E1]; [now rewrite St|].
    destruct (IH s1 sp s' L1 F1 E) as [F2 E2]. split; [exact F2|eapply frame_eq_trans; eauto].
Qed.

Definition finishes (im : image) (pc : positive) (s : astate) (o : obs) : Prop :=
  exists n sf, run_chunk n im pc s = Finished o sf.

Lemma exec_to_finishes im pc s pc' s' o : exec_to im pc s pc' s' -> finishes im pc' s' o -> finishes im pc s o.
Proof.
  induction 1 as [pc s|pc c s s1 pc' s' Hc Hs _ IH|pc c s s1 i pc' s' Hc Hs _ IH]; intros Fin; auto.
  - destruct (IH Fin) as (n & sf & Hn). exists (S n), sf. cbn [run_chunk]. now rewrite Hc, Hs.
  - destruct (IH Fin) as (n & sf & Hn). exists (S n), sf. cbn [run_chunk]. now rewrite Hc, Hs.
Qed.
Lemma finishes_run im pc s o : finishes im pc s o -> exists outer inner, fst (run outer inner im pc s) = o.
Proof. intros (n & sf & Hn). exists 1%nat, n. cbn [run]. now rewrite Hn. Qed.
Lemma finishes_undef im pc c s w s' :
  PM.find pc (code im) = Some c -> step im c s = Undefd w s' -> finishes im pc s (finish (out s') (OUndef w)).
Proof. intros Hc Hs. exists 1%nat, s'. cbn [run_chunk]. now rewrite Hc, Hs. Qed.
Lemma finishes_done im pc c s s' :
  PM.find pc (code im) = Some c -> step im c s = Done s' -> finishes im pc s (finish (out s') (final_check s')).
Proof. intros Hc Hs. exists 1%nat, s'. cbn [run_chunk]. now rewrite Hc, Hs. Qed.

(* jumping to a label that sits in placed code.  Only labels that do not start with '#' are required
   to resolve to their own position: these are the labels whose uniqueness the assembler-level check
   `asm_wf` (Sem/A64Wf.v) establishes on the real output (`hash_name` is its `is_hash_label`). *)
Definition labels_at_nh (im : image) (pc : positive) (cs : list acode) : Prop :=
  forall j l, nth_error cs j = Some (LAB l) -> hash_name l = false -> find_label (labels im) l = Some (padd pc j).
Lemma labels_at_nh_app im pc a b :
  labels_at_nh im pc (a ++ b) <-> labels_at_nh im pc a /\ labels_at_nh im (padd pc (List.length a)) b.
Proof.
  unfold labels_at_nh. split.
  - intros H. split.
    + intros j c Hj. apply H. rewrite nth_error_app1; auto. apply nth_error_Some. congruence.
    + intros j c Hj. rewrite <- padd_add. apply H. rewrite nth_error_app2 by lia.
      replace (List.length a + j - List.length a)%nat with j by lia. exact Hj.
  - intros [Ha Hb] j c Hj. destruct (Nat.lt_ge_cases j (List.length a)) as [L|L].
    + apply Ha. now rewrite nth_error_app1 in Hj.
    + rewrite nth_error_app2 in Hj by lia. intros NH. apply Hb in Hj; [|exact NH]. rewrite <- padd_add in Hj.
      now replace (List.length a + (j - List.length a))%nat with j in Hj by lia.
Qed.
(* a piece in the middle of placed code is placed *)
Lemma placed_mid im pc cs a b c :
  code_at im pc cs -> labels_at_nh im pc cs -> cs = a ++ b ++ c ->
  code_at im (padd pc (List.length a)) b /\ labels_at_nh im (padd pc (List.length a)) b.
Proof.
  intros CA LA ->. apply code_at_app in CA as [_ CA]. apply code_at_app in CA as [CA _].
  apply labels_at_nh_app in LA as [_ LA]. apply labels_at_nh_app in LA as [LA _]. auto.
Qed.
Lemma labels_at_weaken im pc cs : labels_at im pc cs -> labels_at_nh im pc cs.
Proof. intros H j l Hj _. exact (H j l Hj). Qed.
Lemma goto_label_at im pc cs j l s :
  labels_at_nh im pc cs -> nth_error cs j = Some (LAB l) -> hash_name l = false -> goto_label im s l = Jump s (padd pc j).
Proof. intros LA H NH. unfold goto_label. now rewrite (LA j l H NH). Qed.
Lemma code_at_nth im pc cs j c : code_at im pc cs -> nth_error cs j = Some c -> PM.find (padd pc j) (code im) = Some c.
Proof. intros CA H. exact (CA j c H). Qed.

(* labels that are not marks resolve: from labels_at_nh to labels_at for code whose labels are `lab<n>` *)
Definition nh_labels (cs : list acode) : Prop :=
  Forall (fun c => match c with LAB l => hash_name l = false | _ => True end) cs.
Lemma nh_labels_app a b : nh_labels a -> nh_labels b -> nh_labels (a ++ b).
Proof. intros A B. apply Forall_app. split; assumption. Qed.
Lemma labels_at_of_nh im pc cs : nh_labels cs -> labels_at_nh im pc cs -> labels_at im pc cs.
Proof.
  intros NH LA j l Hj. apply LA; auto. unfold nh_labels in NH. rewrite Forall_forall in NH.
  exact (NH _ (nth_error_In _ _ Hj)).
Qed.

Notation avt := (variable_temporary a64_backend Snd).
Notation acs := (code_statement a64_backend).

(* a variable temporary is usable by every selection lemma: not SP/XZR, not X0..X3, not the scratch slot *)
Lemma atpos_ok n i t :
  atpos n i = Ok t -> rem_operand_ok t /\ t <> AR FREE /\ t <> AR HEAP.
Proof.
  intros H. destruct (atpos_operand_ok n i t H) as (O & NF & NH). split; [|auto]. split; [exact O|].
  unfold tpos in H. cbn [b_temporary_from_position a64_backend a64_backend_with] in H.
  destruct (tfp_cases _ _ H) as [(r & -> & _)|(q & -> & _)]; [discriminate|].
  unfold temporary_from_position in H. change RESERVED with 4%N in H. change REGISTER_NUM with 30%N in H.
  change RESERVED_SPILLS with 1%N in H. change SPILL_NUM with 256%N in H. change SPILL_TEMP with 0%N.
  destruct (N.ltb _ 30); [discriminate|]. destruct (N.ltb _ 256); [|discriminate]. intros E. inversion H. inversion E. lia.
Qed.
Lemma atpos_shape n i t :
  atpos n i = Ok t ->
  ((i < 13)%nat /\ t = AR (X (2 * N.of_nat i + tnum_n n + 4))) \/ ((13 <= i)%nat /\ exists q, t = AS q /\ slot_ok q /\ q <> 0%N).
Proof.
  intros H. pose proof (atpos_ok n i t H) as (((L & _) & N0) & _).
  unfold tpos in H. cbn [b_temporary_from_position a64_backend a64_backend_with] in H.
  unfold temporary_from_position in H. change RESERVED with 4%N in H. change REGISTER_NUM with 30%N in H.
  assert (TN : (tnum_n n <= 1)%N) by (destruct n; cbn; lia).
  destruct (N.ltb_spec (2 * N.of_nat i + tnum_n n + 4) 30).
  - left. inversion H; subst. split; [lia|reflexivity].
  - right. destruct (N.ltb _ _); [|discriminate]. inversion H; subst. split; [lia|]. eexists; split; [reflexivity|].
    split; [exact L|]. intros E. apply N0. rewrite E. reflexivity.
Qed.
Lemma vt_of_nth c c' i b :
  NoDup (ids (c ++ c')) -> nth_error c i = Some b ->
  variable_temporary a64_backend Snd (c ++ c') (idn (bvar b)) = atpos Snd i.
Proof.
  intros ND H. apply vt_tpos; auto. rewrite nth_error_app1; auto. apply nth_error_Some. congruence.
Qed.
Lemma vt_of_nth0 c i b :
  NoDup (ids c) -> nth_error c i = Some b -> variable_temporary a64_backend Snd c (idn (bvar b)) = atpos Snd i.
Proof. intros ND H. now apply vt_tpos. Qed.

Lemma in64_wrap z : in64 (wrap z).
Proof. unfold in64, wrap, two63, two64. Z.div_mod_to_equations. lia. Qed.
Lemma in64_quot a b : in64 a -> b <> 0 -> ~ (a = min_int /\ b = -1) -> in64 (Z.quot a b).
Proof.
  unfold in64, min_int, two63. intros A NZ NO.
  (* b * (a ÷ b) lies between 0 and a, so the quotient is no larger than a unless b = -1 *)
  assert (M : 0 <= b * (a ÷ b) <= a \/ a <= b * (a ÷ b) <= 0).
  { destruct (Z.le_ge_cases 0 a); [left; apply Z.mul_quot_le|right; apply Z.mul_quot_ge]; assumption. }
  revert M. generalize (a ÷ b). intros q M. nia.
Qed.
Lemma in64_rem a b : in64 a -> b <> 0 -> in64 (Z.rem a b).
Proof.
  unfold in64. intros A NZ. destruct (rem_between a b NZ) as [P N]. unfold two63 in *.
  destruct (Z_le_gt_dec 0 a); [specialize (P ltac:(lia))|specialize (N ltac:(lia))]; lia.
Qed.
Lemma in64_eval_op o a b v : in64 a -> eval_op o a b = OpVal v -> in64 v.
Proof.
  intros A E. destruct o; cbn [eval_op] in E.
  - destruct (Z.eqb_spec b 0); [discriminate|]. destruct ((a =? min_int) && (b =? -1)) eqn:O; [discriminate|].
    inversion E; subst. apply in64_quot; auto. intros (-> & ->). cbn in O. discriminate.
  - inversion E; subst. apply in64_wrap.
  - destruct (Z.eqb_spec b 0); [discriminate|]. destruct ((a =? min_int) && (b =? -1)); [discriminate|].
    inversion E; subst. apply in64_rem; auto.
  - inversion E; subst. apply in64_wrap.
  - inversion E; subst. apply in64_wrap.
Qed.
Lemma lit_i64_in64 z : lit_i64 z = true <-> in64 z.
Proof. unfold lit_i64, in64, min_int, max_int. rewrite andb_true_iff, !Z.leb_le. lia. Qed.

Lemma preserved_weaken s s' sp t : preserved s s' sp t -> preserved_rem s s' sp t.
Proof. apply preserved_preserved_rem. Qed.

Section Rel.
(* what a closure's code pointer points to: (address, type name, clauses); fixed by the program-level
   development (Proof/A64SimClo.v); the statement-level lemmas never look inside *)
Variable CL : Z -> ident -> list clause -> Prop.

(* how the value of position i is represented:
   - an integer (binding `ext i64`): the SECOND temporary of the position holds it (X(2i+5) for i < 13 - the
     link register X30 for i = 12 - spill slot 2i-24 after), and it is a 64-bit value;
   - a closure without captured variables (binding `cns T`): the first temporary holds the null block
     pointer, the second one the address of the closure's jump table / single clause *)
Inductive vrep (s : astate) (sp : Z) (i : nat) : binding -> value -> Prop :=
| vrep_int b z t :
    bchi b = Ext -> bty b = I64 -> atpos Snd i = Ok t -> lget s sp t = Some z -> in64 z -> vrep s sp i b (VInt z)
| vrep_clo b tn cls a t1 t2 :
    bchi b = Cns -> bty b = Decl tn ->
    atpos Fst i = Ok t1 -> atpos Snd i = Ok t2 -> lget s sp t1 = Some 0 -> lget s sp t2 = Some a ->
    CL a tn cls -> vrep s sp i b (VClo tn cls []).

Record rel (c : ctx) (e : env) (s : astate) (sp : Z) : Prop := mk_rel {
  rel_frame : frame_ok s sp;                 (* SP = sp, 0 mod 16, the spill area inside the stack region *)
  rel_room : STACK_LIMIT + 144 <= sp;        (* room for the pushes around a print call *)
  rel_free : exists f, rget s FREE = Some f; (* the deferred-free list register is defined *)
  rel_ids : env_ids e = ids c;
  rel_nodup : NoDup (ids c);
  rel_vals : forall i x v, nth_error e i = Some (x, v) -> exists b, nth_error c i = Some b /\ vrep s sp i b v
}.

Lemma rel_length c e s sp : rel c e s sp -> List.length e = List.length c.
Proof.
  intros R. pose proof (rel_ids _ _ _ _ R) as H. apply (f_equal (@List.length N)) in H.
  unfold env_ids, ids in H. now rewrite !map_length in H.
Qed.

Lemma vrep_keep s s' sp i b v :
  (forall n t, allowed n b -> atpos n i = Ok t -> lget s' sp t = lget s sp t) -> vrep s sp i b v -> vrep s' sp i b v.
Proof.
  intros K V. destruct V as [b z t A B T L I|b tn cls a t1 t2 A B T1 T2 L1 L2 C].
  - eapply vrep_int; eauto. rewrite (K Snd _ (or_introl eq_refl) T). exact L.
  - assert (AL : forall n, allowed n b) by (intros n; right; congruence).
    eapply vrep_clo; eauto; [now rewrite (K _ _ (AL Fst) T1)|now rewrite (K _ _ (AL Snd) T2)].
Qed.

(* reading an operand: the machine's lookup and the generator's variable_temporary meet *)
Lemma rel_lookup c e s sp a x :
  rel c e s sp -> lookup_int e a = Some x ->
  exists i b t, nth_error c i = Some b /\ idn (bvar b) = idn a /\ atpos Snd i = Ok t /\ lget s sp t = Some x /\ in64 x.
Proof.
  intros R H. unfold lookup_int, lookup_id in H. destruct (AxSem.lookup e (idn a)) as [[z| |]|] eqn:L; try discriminate.
  inversion H; subst z. destruct (lookup_nth e (idn a) (VInt x) L) as (i & y & Hn & Hy).
  destruct (env_ctx_nth c e i y _ (rel_ids _ _ _ _ R) Hn) as (b & Hb & Eb).
  destruct (rel_vals _ _ _ _ R i y _ Hn) as (b' & Hb' & V). assert (b' = b) by congruence. subst b'.
  inversion V; subst. exists i, b, t. split; [auto|split; [congruence|split; [auto|split; auto]]].
Qed.

(* the same for the temporary the generator computed for the operand, in the context or an extension of it *)
Lemma rel_operand c c' e s sp a x t :
  rel c e s sp -> NoDup (ids (c ++ c')) -> lookup_int e a = Some x -> avt (c ++ c') (idn a) = Ok t ->
  exists i b, nth_error c i = Some b /\ atpos Snd i = Ok t /\ lget s sp t = Some x /\ in64 x.
Proof.
  intros R ND L T. destruct (rel_lookup c e s sp a x R L) as (i & b & t' & Hi & Ei & Ti & Vi & Ii).
  rewrite <- Ei, (vt_of_nth c c' i b ND Hi), Ti in T. inversion T; subst t'. eauto 6.
Qed.
Lemma rel_operand0 c e s sp a x t :
  rel c e s sp -> lookup_int e a = Some x -> avt c (idn a) = Ok t ->
  exists i b, nth_error c i = Some b /\ atpos Snd i = Ok t /\ lget s sp t = Some x /\ in64 x.
Proof. intros R L T. apply (rel_operand c [] e s sp a x t R); rewrite ?app_nil_r; auto. exact (rel_nodup _ _ _ _ R). Qed.

(* a state change that keeps every live variable location (and FREE) keeps the relation; the first
   temporary of an integer variable is not live *)
Lemma rel_keep c e s s' sp :
  rel c e s sp -> frame_ok s' sp -> rget s' FREE = rget s FREE ->
  (forall i b n t, nth_error c i = Some b -> allowed n b -> atpos n i = Ok t -> lget s' sp t = lget s sp t) ->
  rel c e s' sp.
Proof.
  intros R F FR K. destruct R as [F0 Ro Fr Ids ND Vals]. split; auto.
  - now rewrite FR.
  - intros i x v Hn. destruct (Vals i x v Hn) as (b & Hb & V). exists b. split; [exact Hb|].
    eapply vrep_keep; [|exact V]. intros n t AL T. apply (K i b n t); auto.
Qed.

Lemma free_operand : loc_ok (AR FREE) /\ AR FREE <> AR TEMP /\ AR FREE <> AR TEMP2 /\ AR FREE <> AS SPILL_TEMP.
Proof. change FREE with (X 1). change TEMP with (X 2). change TEMP2 with (X 3). repeat split; try exact I; congruence. Qed.

(* extending the environment by a new last variable: the state change keeps the locations of the old variables
   (and FREE) and establishes the representation of the new one *)
Lemma rel_extend c e s s' sp b v :
  rel c e s sp -> NoDup (ids (c ++ [b])) -> frame_ok s' sp -> rget s' FREE = rget s FREE ->
  (forall i n t, (i < List.length c)%nat -> atpos n i = Ok t -> lget s' sp t = lget s sp t) ->
  vrep s' sp (List.length c) b v ->
  rel (c ++ [b]) (e ++ [(bvar b, v)]) s' sp.
Proof.
  intros R ND F' FR K V. pose proof (rel_length _ _ _ _ R) as LEN.
  assert (R' : rel c e s' sp).
  { apply (rel_keep c e s s' sp R F' FR). intros i b0 n t Hi _. apply K. apply nth_error_Some. congruence. }
  destruct R' as [_ Ro Fr Ids _ Vals]. split; auto.
  - unfold env_ids, ids in *. rewrite !map_app, Ids. reflexivity.
  - intros i x w Hn. destruct (Nat.lt_ge_cases i (List.length e)) as [L|L].
    + rewrite nth_error_app1 in Hn by exact L. destruct (Vals i x w Hn) as (b0 & Hb & V0).
      exists b0. split; [rewrite nth_error_app1 by lia; exact Hb|exact V0].
    + rewrite nth_error_app2 in Hn by exact L. destruct (i - List.length e)%nat as [|k] eqn:E; cbn in Hn; [|destruct k; discriminate].
      inversion Hn; subst x w. assert (i = List.length c) by lia. subst i.
      exists b. split; [apply nth_error_mid|exact V].
Qed.
Lemma atpos_other n i t m j u : atpos n i = Ok t -> atpos m j = Ok u -> i <> j -> t <> u.
Proof. intros T U NE E. subst u. destruct (tpos_inj a64_backend a64_backend_ok _ _ _ _ _ T U) as [_ E]. exact (NE E). Qed.

(* a new last integer variable whose temporary has been written *)
Lemma rel_push c e s s' sp v z t :
  rel c e s sp -> NoDup (ids (c ++ [mkb v Ext I64])) ->
  atpos Snd (List.length c) = Ok t -> lget s' sp t = Some z -> in64 z -> preserved_rem s s' sp t ->
  rel (c ++ [mkb v Ext I64]) (e ++ [(v, VInt z)]) s' sp.
Proof.
  intros R ND Ht Hv IZ (PR & _ & _ & _ & F').
  apply (rel_extend c e s s' sp (mkb v Ext I64) (VInt z) R ND F').
  - destruct free_operand as (A & B & C & D). apply (PR (AR FREE)); auto.
    intros E; subst t. destruct (atpos_ok _ _ _ Ht) as (_ & N & _). congruence.
  - intros i n t0 Li T0. destruct (atpos_ok _ _ _ T0) as (((A & B & C) & D) & _). apply PR; auto.
    apply (atpos_other _ _ _ _ _ _ T0 Ht). lia.
  - exact (vrep_int s' sp _ (mkb v Ext I64) z t eq_refl eq_refl Ht Hv IZ).
Qed.
End Rel.
Arguments rel_frame {CL c e s sp}.
Arguments rel_room {CL c e s sp}.
Arguments rel_free {CL c e s sp}.
Arguments rel_ids {CL c e s sp}.
Arguments rel_nodup {CL c e s sp}.
Arguments rel_vals {CL c e s sp}.
Arguments rel_length {CL c e s sp}.
