(* C03, uniquify preserves behaviour: alpha-equivalence with a binder correspondence.

   [gam] = list of (source binder, chirality of the variable, target binder), innermost first; it is
   the zip of the binder names of two corresponding machine environments.  An occurrence x matches
   x' ([vmatch]) when looking x up in the source names and x' in the target names stops at the SAME
   position (or at none, and then x = x').  The chirality component plays no role in [aeq] (the
   machine has one namespace); it is used by the scoping checker [cs_*] (every occurrence refers to
   a binder of its own chirality - a consequence of typing that `uniquify` relies on, because its
   substitution keeps separate lists for variables and covariables). *)
From Coq Require Import List ZArith NArith String Bool Lia.
From SCC Require Import Proof.CoreInd.
From SCC Require Import Base.Sexp Lang.CoreSyn Model.Backend Model.Uniquify Model.FocusCheck Proof.SubstProof.
From SCC Require Import Model.FocusGuard.
Import ListNotations.
Open Scope list_scope.

Definition gam := list (cident * cchi * cident).

Fixpoint vmatch (G : gam) (x x' : cident) : bool :=
  match G with
  | [] => cident_eqb x x'
  | (y, _, y') :: r =>
      if cident_eqb y x then cident_eqb y' x'
      else if cident_eqb y' x' then false else vmatch r x x'
  end.

Fixpoint gfind (G : gam) (x : cident) : option (cchi * cident) :=
  match G with
  | [] => None
  | (y, ch, y') :: r => if cident_eqb y x then Some (ch, y') else gfind r x
  end.

Fixpoint gzip (ctx ctx' : cctx) : gam :=
  match ctx, ctx' with
  | b :: r, b' :: r' => (cbvar b, cbchi b, cbvar b') :: gzip r r'
  | _, _ => []
  end.
Definition ctx_like (ctx ctx' : cctx) : Prop := Forall2 (fun b b' => cbchi b' = cbchi b /\ cbty b' = cbty b) ctx ctx'.

Inductive aeq_t : gam -> cterm -> cterm -> Prop :=
| A_var : forall G c x ty c2 x' ty2, vmatch G x x' = true -> aeq_t G (CXVar c x ty) (CXVar c2 x' ty2)
| A_lit : forall G n, aeq_t G (CLit n) (CLit n)
| A_op : forall G a o b a' b', aeq_t G a a' -> aeq_t G b b' -> aeq_t G (COp a o b) (COp a' o b')
| A_mu : forall G c v s ty v' s',
    aeq_s ((v, mu_binds c, v') :: G) s s' -> aeq_t G (CMu c v s ty) (CMu c v' s' ty)
| A_xtor : forall G c x args args' ty, aeq_as G args args' -> aeq_t G (CXtor c x args ty) (CXtor c x args' ty)
| A_xcase : forall G c cls cls' ty, aeq_cs G cls cls' -> aeq_t G (CXCase c cls ty) (CXCase c cls' ty)
with aeq_a : gam -> carg -> carg -> Prop :=
| A_prd : forall G p p', aeq_t G p p' -> aeq_a G (CProducer p) (CProducer p')
| A_cns : forall G p p', aeq_t G p p' -> aeq_a G (CConsumer p) (CConsumer p')
with aeq_as : gam -> list carg -> list carg -> Prop :=
| A_anil : forall G, aeq_as G [] []
| A_acons : forall G a a' l l', aeq_a G a a' -> aeq_as G l l' -> aeq_as G (a :: l) (a' :: l')
with aeq_c : gam -> cclause -> cclause -> Prop :=
| A_clause : forall G c x ctx ctx' b b',
    ctx_like ctx ctx' -> aeq_s (gzip ctx ctx' ++ G) b b' -> aeq_c G (CClause c x ctx b) (CClause c x ctx' b')
with aeq_cs : gam -> list cclause -> list cclause -> Prop :=
| A_cnil : forall G, aeq_cs G [] []
| A_ccons : forall G a a' l l', aeq_c G a a' -> aeq_cs G l l' -> aeq_cs G (a :: l) (a' :: l')
with aeq_s : gam -> cstmt -> cstmt -> Prop :=
| A_cut : forall G p ty k p' k', aeq_t G p p' -> aeq_t G k k' -> aeq_s G (CCut p ty k) (CCut p' ty k')
| A_ifc : forall G so a b t e a' b' t' e',
    aeq_t G a a' -> aeq_o G b b' -> aeq_s G t t' -> aeq_s G e e' -> aeq_s G (CIfC so a b t e) (CIfC so a' b' t' e')
| A_print : forall G nl a n a' n', aeq_t G a a' -> aeq_s G n n' -> aeq_s G (CPrint nl a n) (CPrint nl a' n')
| A_call : forall G f args args' ty, aeq_as G args args' -> aeq_s G (CCall f args ty) (CCall f args' ty)
| A_exit : forall G a a' ty, aeq_t G a a' -> aeq_s G (CExit a ty) (CExit a' ty)
with aeq_o : gam -> option cterm -> option cterm -> Prop :=
| A_none : forall G, aeq_o G None None
| A_some : forall G a a', aeq_t G a a' -> aeq_o G (Some a) (Some a').

Definition gsrc (G : gam) : list (cident * cchi) := map (fun e => (fst (fst e), snd (fst e))) G.

Lemma sfind_gsrc : forall G x, sfind (gsrc G) x = option_map fst (gfind G x).
Proof.
  induction G as [|[[y ch] y'] r IH]; simpl; intros x; [reflexivity|].
  destruct (cident_eqb y x); [reflexivity | apply IH].
Qed.
Lemma gsrc_app : forall a b, gsrc (a ++ b) = gsrc a ++ gsrc b.
Proof. intros. unfold gsrc. apply map_app. Qed.
Lemma gsrc_gzip : forall ctx ctx', List.length ctx = List.length ctx' -> gsrc (gzip ctx ctx') = ctx_sc ctx.
Proof.
  induction ctx as [|b r IH]; intros [|b' r'] H; simpl in *; try discriminate; [reflexivity|].
  f_equal. apply IH. lia.
Qed.
Lemma gfind_app : forall a b x, gfind (a ++ b) x = match gfind a x with Some r => Some r | None => gfind b x end.
Proof.
  induction a as [|[[y ch] y'] a IH]; simpl; intros b x; [reflexivity|].
  destruct (cident_eqb y x); [reflexivity | apply IH].
Qed.

(* the target name of an occurrence and when it matches *)
Definition img (G : gam) (x : cident) : cident := match gfind G x with Some (_, x') => x' | None => x end.

(* every target binder is the source binder itself (id <= T) or a fresh name (T < id <= m) different
   from every other target binder *)
Inductive GOK (T m : N) : gam -> Prop :=
| GOK_nil : GOK T m []
| GOK_cons : forall x ch x' G,
    GOK T m G ->
    (x' = x /\ (cid_id x <= T)%N) \/ ((T < cid_id x' <= m)%N /\ forall z c z', In (z, c, z') G -> z' <> x') ->
    GOK T m ((x, ch, x') :: G).

Lemma GOK_mono : forall T m m2 G, GOK T m G -> (m <= m2)%N -> GOK T m2 G.
Proof.
  induction 1 as [|x ch x' G H IH K]; intros L; constructor; auto.
  destruct K as [K|[K1 K2]]; [left; exact K | right; split; [lia | exact K2]].
Qed.

Lemma gfind_in : forall G x ch x', gfind G x = Some (ch, x') -> In (x, ch, x') G.
Proof.
  induction G as [|[[y c] y'] r IH]; simpl; intros x ch x' H; [discriminate|].
  destruct (cident_eqb y x) eqn:E.
  - apply cident_eqb_eq in E. subst. inversion H; subst. auto.
  - right. apply IH; exact H.
Qed.

Lemma GOK_in : forall T m G z c z', GOK T m G -> In (z, c, z') G ->
  (z' = z /\ (cid_id z <= T)%N) \/ (T < cid_id z' <= m)%N.
Proof.
  induction 1 as [|x ch x' G H IH K]; intros I; [destruct I|].
  destruct I as [I|I]; [inversion I; subst; destruct K as [K|[K _]]; auto | auto].
Qed.

Lemma vmatch_img : forall T m G x, GOK T m G -> (cid_id x <= T)%N -> vmatch G x (img G x) = true.
Proof.
  induction 1 as [|y ch y' G H IH K]; intros Lx; unfold img; simpl.
  - apply cident_eqb_refl.
  - destruct (cident_eqb y x) eqn:E; [apply cident_eqb_refl|].
    fold (img G x).
    destruct (cident_eqb y' (img G x)) eqn:E2; [|apply IH; exact Lx].
    exfalso. apply cident_eqb_eq in E2.
    assert (NE : y <> x) by (intros ->; rewrite cident_eqb_refl in E; discriminate).
    unfold img in E2. destruct (gfind G x) as [[c1 x1]|] eqn:F.
    + subst y'. apply gfind_in in F.
      destruct K as [[K1 K2]|[K1 K2]].
      * subst x1. destruct (GOK_in _ _ _ _ _ _ H F) as [[Q _]|Q]; [congruence | lia].
      * exact (K2 _ _ _ F eq_refl).
    + subst y'. destruct K as [[K _]|[K1 _]]; [congruence | lia].
Qed.
