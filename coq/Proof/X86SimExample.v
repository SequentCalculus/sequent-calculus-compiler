(* C06: a concrete program of the integer fragment on which every hypothesis of
   x86_codegen_simulates_int is evaluated, and both sides of its conclusion are computed:
   literals, all kinds of operators (incl. a division by zero), both forms of the conditional, an explicit
   substitution followed by a call, prints with and without newline, two definitions. *)
From Coq Require Import List ZArith NArith String Bool.
From SCC Require Import Base.Sexp Lang.AxSyn Sem.AxSem Model.Backend Model.X86 Sem.X86Sem Sem.X86Wf
     Model.Linearize Model.LinCheck Proof.X86SimRel Proof.X86SimProg Proof.X86SimTop.
Import ListNotations.
Open Scope string_scope.
Open Scope Z_scope.

Definition id_ (s : string) (n : N) : ident := (s, n).
Definition ib (s : string) (n : N) : binding := mkb (id_ s n) Ext I64.

Definition ex_main : def :=
  mkd (id_ "main" 0) [ib "x" 1]
    (Literal 10 (id_ "y" 2)
    (Op (id_ "x" 1) Sum (id_ "y" 2) (id_ "z" 3)
    (PrintI64 true (id_ "z" 3)
    (IfC Lt (id_ "x" 1) (Some (id_ "y" 2))
       (Substitute [(ib "a" 4, id_ "z" 3); (ib "b" 5, id_ "x" 1); (ib "c" 6, id_ "z" 3)] (Call (id_ "f" 0) []))
       (Literal 10 (id_ "k" 4)
       (Op (id_ "x" 1) Sub (id_ "k" 4) (id_ "m" 5)
       (Op (id_ "z" 3) Div (id_ "m" 5) (id_ "w" 6)
       (Op (id_ "w" 6) Rem (id_ "y" 2) (id_ "r" 7)
       (PrintI64 false (id_ "r" 7)
       (Exit (id_ "w" 6))))))))))).
Definition ex_f : def :=
  mkd (id_ "f" 0) [ib "a" 1; ib "b" 2; ib "c" 3]
    (Literal (-7) (id_ "d" 4)
    (Op (id_ "a" 1) Prod (id_ "d" 4) (id_ "e" 5)
    (PrintI64 false (id_ "e" 5)
    (IfC Eq (id_ "b" 2) None
       (Exit (id_ "c" 3))
       (Substitute [(ib "x" 1, id_ "b" 2)] (Call (id_ "main" 0) [])))))).
Definition ex_prog : prog := mkp [ex_main; ex_f] [] 10.

Definition ex_code : list xcode :=
  match x86_compile ex_prog 0 with Ok (cs, _, _) => cs | Err _ => [] end.

Lemma ex_hypotheses :
  int_frag ex_prog = true /\ plain_names ex_prog = true /\ lin_check_prog ex_prog = true /\
  (exists n lc', x86_compile ex_prog 0 = Ok (ex_code, n, lc')) /\ asm_wf ex_code = None.
Proof. repeat apply conj; try (vm_compute; reflexivity). eexists _, _. vm_compute. reflexivity. Qed.

(* x = 3: main prints 13, calls f(13, 3, 13), which prints -91 and calls main(3) ... the loop never ends
   (fuel); x = 0: f exits with 10; x = 12: the else branch divides 22 by 2; x = 10: division by zero *)
Lemma ex_runs :
  run_linear 50 ex_prog [0] = ([(true, 10); (false, -70)], OExit 10) /\
  fst (run_x86 10 1000 ex_code [0]) = ([(true, 10); (false, -70)], OExit 10) /\
  run_linear 50 ex_prog [12] = ([(true, 22); (false, 1)], OExit 11) /\
  fst (run_x86 10 1000 ex_code [12]) = ([(true, 22); (false, 1)], OExit 11) /\
  run_linear 50 ex_prog [10] = ([(true, 20)], OUndef "div0") /\
  fst (run_x86 10 1000 ex_code [10]) = ([(true, 20)], OUndef "div0").
Proof. repeat apply conj; vm_compute; reflexivity. Qed.

(* an AxCut program BEFORE linearization (the shape `shrink` produces for a `main` that calls nothing:
   variables are used several times, nothing is dropped explicitly); the model of the linearizer inserts
   the explicit substitutions, and its output meets every x86-side hypothesis of
   C01_compile_correct_int_partial *)
Definition ex_named : prog :=
  mkp [mkd (id_ "main" 0) [ib "x" 1; ib "u" 2]
        (Literal 1 (id_ "one" 3)
        (Op (id_ "x" 1) Sum (id_ "one" 3) (id_ "y" 4)
        (PrintI64 true (id_ "y" 4)
        (IfC Le (id_ "y" 4) None
           (Exit (id_ "x" 1))
           (Op (id_ "y" 4) Prod (id_ "y" 4) (id_ "q" 5)
           (PrintI64 false (id_ "q" 5)
           (Exit (id_ "y" 4))))))))] [] 5.
Definition ex_named_code : list xcode :=
  match x86_compile (linearize ex_named) 0 with Ok (cs, _, _) => cs | Err _ => [] end.
Lemma ex_named_hypotheses :
  prog_ok ex_named = true /\ int_frag (linearize ex_named) = true /\ plain_names (linearize ex_named) = true /\
  (exists n lc', x86_compile (linearize ex_named) 0 = Ok (ex_named_code, n, lc')) /\ asm_wf ex_named_code = None /\
  run_named 50 ex_named [6; 0] = ([(true, 7); (false, 49)], OExit 7) /\
  fst (run_x86 10 1000 ex_named_code [6; 0]) = ([(true, 7); (false, 49)], OExit 7).
Proof. repeat apply conj; try (vm_compute; reflexivity). eexists _, _. vm_compute. reflexivity. Qed.

(* without the arity hypothesis the statement is false: ex_prog (one parameter) called with six arguments:
   the linear machine refuses to start ("entry-args"), the ISA entry convention has no sixth integer
   argument register for asm_main ("too-many-arguments"), whatever the fuel *)
Lemma ex_arity_needed :
  ~ (forall (p : prog) (lc : N) (cs : list xcode) (n : nat) (lc' : N) (args : list Z) (fuel : nat) (o : obs),
      int_frag p = true -> plain_names p = true -> lin_check_prog p = true ->
      x86_compile p lc = Ok (cs, n, lc') -> asm_wf cs = None ->
      run_linear fuel p args = o -> snd o <> OOutOfFuel ->
      exists outer inner, fst (run_x86 outer inner cs args) = o).
Proof.
  intros H. destruct ex_hypotheses as (A & B & C & (n & lc' & D) & E).
  destruct (H ex_prog 0%N ex_code n lc' [1; 2; 3; 4; 5; 6] 5%nat _ A B C D E eq_refl) as (outer & inner & R).
  { vm_compute. discriminate. }
  unfold run_x86 in R. change (find_label (labels (mk_image ex_code)) "asm_main") with (Some 6%positive) in R.
  cbv iota beta zeta in R. change (Nat.ltb 5 (List.length [1; 2; 3; 4; 5; 6])) with true in R. cbv iota in R.
  vm_compute in R. discriminate.
Qed.
