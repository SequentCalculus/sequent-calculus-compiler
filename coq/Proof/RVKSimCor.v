(* C08, heap statements, all statement forms: corollaries of Proof/RVKSimTop.rv_codegen_simulates_all.
   - for runs that end with a result or an undefined operation the argument count is right (no arity
     hypothesis);
   - for outputs of the linearization pass the two structural checks (`lin_check_prog`, `ann_check_prog`)
     are theorems (C05 linearize_exact; Proof/X86HAnnLin.linearize_ann). *)
From Coq Require Import List ZArith NArith String Bool Lia.
From SCC Require Import Base.Sexp Lang.AxSyn Sem.AxSem Sem.AxHeap Model.Backend Model.RV Sem.RVSem Sem.RVWf
     Model.Linearize Model.LinCheck Model.Capacity Proof.LinearizeProof Proof.RVSimAddr Proof.RVSimRel Proof.RVSimTop
     Proof.RVKFrag Proof.X86HAnn Proof.X86HAnnLin Proof.RVHSimTop Proof.RVKSimTop.
From SCC Require Model.Heap Proof.X86SimProg.
Import ListNotations.
Open Scope Z_scope.

Corollary rv_codegen_correct_heap p lc cs n lc' args fuel o :
  SimFrag.entry_int p = true -> lin_check_prog p = true -> ann_check_prog p = true ->
  rv_compile p lc = Ok (cs, n, lc') -> asm_wf cs = None -> code_small cs = true ->
  Nat.leb (main_arity p) 14 = true -> heap_fits p args ->
  run_linear fuel p args = o -> SimFrag.good o ->
  exists outer inner, fst (run_rv outer inner cs args) = o.
Proof.
  intros EI LIN ANN XC WF SM CAP FIT RUN G.
  eapply rv_codegen_simulates_all; eauto; [|apply SimFrag.good_not_oof; exact G].
  unfold rv_compile in XC. destruct (prog_has_print p); [discriminate|].
  unfold compile in XC. unfold run_linear in RUN. destruct (pdefs p) as [|d0 rest] eqn:PD; [discriminate|].
  destruct (translate rv_backend (ptypes p) (d0 :: rest) lc) as [[is' lc1]|] eqn:TR; cbn [rbind] in XC; [|discriminate].
  cbn in XC. inversion XC; subst cs n lc'; clear XC.
  destruct (entry_env d0 args) as [e0|] eqn:EE; [|subst o; exfalso; destruct G as [(z & H)|(z & H)]; discriminate].
  unfold entry_env in EE. apply SimFrag.bind_length in EE. unfold vars in EE. rewrite !map_length in EE. auto.
Qed.

(* the code generator applied to the output of the linearization pass *)
Corollary rv_codegen_correct_linearized a lc cs n lc' args fuel o :
  prog_ok a = true ->
  SimFrag.entry_int (linearize a) = true ->
  rv_compile (linearize a) lc = Ok (cs, n, lc') -> asm_wf cs = None -> code_small cs = true ->
  Nat.leb (main_arity (linearize a)) 14 = true -> heap_fits (linearize a) args ->
  run_linear fuel (linearize a) args = o -> SimFrag.good o ->
  exists outer inner, fst (run_rv outer inner cs args) = o.
Proof.
  intros OK. intros. eapply rv_codegen_correct_heap; eauto using linearize_exact, linearize_ann.
Qed.
