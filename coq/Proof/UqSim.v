(* C03, uniquify preserves behaviour: alpha-equivalent programs run in lock step on the Core
   machine ([u_step]), hence have the SAME observation for every fuel ([u_crun]) - stuck and
   out-of-fuel runs included. *)
From Coq Require Import List ZArith NArith String Bool Lia.
From SCC Require Import Base.Sexp Lang.CoreSyn Sem.AxSem Sem.CoreSem Model.Backend Model.Uniquify Model.FocusCheck
     Proof.SubstProof Proof.UqAeq.
From SCC Require Import Model.FocusGuard.
Import ListNotations.
Open Scope list_scope.

(* Machine states of the program and of its uniquified form, related piece by piece: code by alpha-equivalence under
   a binder correspondence G, and G is the zip of the names of the two environments ([UE]).
   UV values (closures carry their own G), UVs lists of values, UM machine continuations, UF what follows an
   argument list, UC configurations. *)
Inductive UV : bval -> bval -> Prop :=
| UV_int : forall z, UV (BP (PInt z)) (BP (PInt z))
| UV_ctor : forall tag args args', UVs args args' -> UV (BP (PCtor tag args)) (BP (PCtor tag args'))
| UV_cocase : forall G cls e cls' e', aeq_cs G cls cls' -> UE G e e' -> UV (BP (PCocase cls e)) (BP (PCocase cls' e'))
| UV_thunk : forall G ch a s e a' s' e',
    aeq_s ((a, ch, a') :: G) s s' -> UE G e e' -> UV (BP (PThunk a s e)) (BP (PThunk a' s' e'))
| UV_delay : forall m m', UM m m' -> UV (BP (PDelay m)) (BP (PDelay m'))
| UV_mut : forall G ch x s e x' s' e',
    aeq_s ((x, ch, x') :: G) s s' -> UE G e e' -> UV (BK (KMuT x s e)) (BK (KMuT x' s' e'))
| UV_case : forall G cls e cls' e', aeq_cs G cls cls' -> UE G e e' -> UV (BK (KCase cls e)) (BK (KCase cls' e'))
| UV_dtor : forall tag args args', UVs args args' -> UV (BK (KDtor tag args)) (BK (KDtor tag args'))
| UV_ret : forall m m', UM m m' -> UV (BK (KRet m)) (BK (KRet m'))
with UVs : list bval -> list bval -> Prop :=
| UVs_nil : UVs [] []
| UVs_cons : forall v v' l l', UV v v' -> UVs l l' -> UVs (v :: l) (v' :: l')
with UE : gam -> cenv -> cenv -> Prop :=
| UE_nil : UE [] [] []
| UE_cons : forall x ch x' v v' G e e', UV v v' -> UE G e e' -> UE ((x, ch, x') :: G) ((x, v) :: e) ((x', v') :: e')
with UM : mk -> mk -> Prop :=
| UM_args : forall G done rest e f done' rest' e' f',
    UVs done done' -> aeq_as G rest rest' -> UE G e e' -> UF f f' ->
    UM (MArgs done rest e f) (MArgs done' rest' e' f')
| UM_opL : forall G o b e m b' e' m', aeq_t G b b' -> UE G e e' -> UM m m' -> UM (MOpL o b e m) (MOpL o b' e' m')
| UM_opR : forall o x m m', UM m m' -> UM (MOpR o x m) (MOpR o x m')
| UM_if1 : forall G so b t el e b' t' el' e',
    aeq_o G b b' -> aeq_s G t t' -> aeq_s G el el' -> UE G e e' -> UM (MIf1 so b t el e) (MIf1 so b' t' el' e')
| UM_if2 : forall G so x t el e t' el' e',
    aeq_s G t t' -> aeq_s G el el' -> UE G e e' -> UM (MIf2 so x t el e) (MIf2 so x t' el' e')
| UM_print : forall G nl n e n' e', aeq_s G n n' -> UE G e e' -> UM (MPrint nl n e) (MPrint nl n' e')
| UM_exit : UM MExit MExit
| UM_cutK : forall G k e k' e', aeq_t G k k' -> UE G e e' -> UM (MCutK k e) (MCutK k' e')
| UM_cutP : forall G cd p e p' e', aeq_t G p p' -> UE G e e' -> UM (MCutP cd p e) (MCutP cd p' e')
with UF : fin -> fin -> Prop :=
| UF_call : forall f, UF (FinCall f) (FinCall f)
| UF_xp : forall tag m m', UM m m' -> UF (FinXtorP tag m) (FinXtorP tag m')
| UF_xk : forall tag m m', UM m m' -> UF (FinXtorK tag m) (FinXtorK tag m').

Inductive UC : config -> config -> Prop :=
| UC_run : forall G s e s' e', aeq_s G s s' -> UE G e e' -> UC (Run s e) (Run s' e')
| UC_arg : forall G a e m a' e' m', aeq_a G a a' -> UE G e e' -> UM m m' -> UC (Arg a e m) (Arg a' e' m')
| UC_app : forall m v m' v', UM m m' -> UV v v' -> UC (App m v) (App m' v').

Definition sres_u (r r' : sres) : Prop :=
  match r, r' with
  | SNext c, SNext c' => UC c c'
  | SPrint nl z c, SPrint nl' z' c' => nl = nl' /\ z = z' /\ UC c c'
  | SHalt o, SHalt o' => o = o'
  | _, _ => False
  end.

Section USim.
Variables p p1 : cprog.
Hypothesis Hcod : forall ty, is_codata p1 ty = is_codata p ty.
Hypothesis Hdefs : forall f,
  match cfind_def p f, cfind_def p1 f with
  | Some d, Some d1 => ctx_like (cdctx d) (cdctx d1) /\ aeq_s (gzip (cdctx d) (cdctx d1)) (cdbody d) (cdbody d1)
  | None, None => True
  | _, _ => False
  end.

Lemma ue_lookup : forall G e e', UE G e e' -> forall x x', vmatch G x x' = true ->
  match clookup e x, clookup e' x' with
  | Some v, Some v' => UV v v'
  | None, None => True
  | _, _ => False
  end.
Proof.
  induction 1 as [|y ch y' v v' G e e' HV HE IH]; intros x x' M; simpl in *.
  - exact I.
  - destruct (cident_eqb y x).
    + rewrite M. exact HV.
    + destruct (cident_eqb y' x'); [discriminate | apply IH; exact M].
Qed.

Lemma UV_kind : forall v v', UV v v' -> (exists a b, v = BP a /\ v' = BP b) \/ (exists a b, v = BK a /\ v' = BK b).
Proof. intros v v' H. inversion H; subst; eauto. Qed.

Lemma UVs_rev_append : forall a a' b b', UVs a a' -> UVs b b' -> UVs (rev_append a b) (rev_append a' b').
Proof. intros a a' b b' H. revert b b'. induction H; simpl; intros b b' Hb; auto. apply IHUVs. constructor; auto. Qed.

Lemma u_cbind : forall ctx ctx' vs vs' G e e', ctx_like ctx ctx' -> UVs vs vs' -> UE G e e' ->
  match cbind (cvars ctx) vs e, cbind (cvars ctx') vs' e' with
  | Some e1, Some e1' => UE (gzip ctx ctx' ++ G) e1 e1'
  | None, None => True
  | _, _ => False
  end.
Proof.
  induction ctx as [|b r IH]; intros ctx' vs vs' G e e' CL HV HE; inversion CL; subst; simpl.
  - inversion HV; subst; simpl; auto.
  - inversion HV; subst; simpl; auto.
    specialize (IH _ _ _ _ _ _ H3 H0 HE).
    destruct (cbind (cvars r) l e), (cbind (cvars l') l'0 e'); try contradiction; auto.
    simpl. constructor; auto.
Qed.

Lemma u_select : forall G cls cls' ce ce' tag args args',
  aeq_cs G cls cls' -> UE G ce ce' -> UVs args args' ->
  sres_u (select cls ce tag args) (select cls' ce' tag args').
Proof.
  intros G cls cls' ce ce' tag args args' A HE HV. unfold select, cfind_clause.
  induction A as [|G a a' l l' Ha Hl IH]; simpl; [reflexivity|].
  inversion Ha; subst. simpl.
  destruct (cident_eqb x tag).
  - simpl. pose proof (u_cbind _ _ _ _ _ _ _ H HV HE) as B.
    destruct (cbind (cvars ctx) args ce), (cbind (cvars ctx') args' ce'); try contradiction; simpl; auto.
    econstructor; eauto.
  - apply IH; auto.
Qed.

Lemma u_khead : forall G k k' e e', aeq_t G k k' -> UE G e e' ->
  match khead k e, khead k' e' with
  | inl kv, inl kv' => UV (BK kv) (BK kv')
  | inr w, inr w' => w = w'
  | _, _ => False
  end.
Proof.
  intros G k k' e e' A HE. inversion A; subst; simpl; auto.
  - pose proof (ue_lookup _ _ _ HE _ _ H) as L.
    destruct (clookup e x) as [v|], (clookup e' x') as [v'|]; try contradiction; auto.
    destruct (UV_kind _ _ L) as [(a & b & -> & ->)|(a & b & -> & ->)]; auto.
  - econstructor; eauto.
  - econstructor; eauto.
Qed.

Lemma u_interact_val : forall pv pv' kv kv', UV (BP pv) (BP pv') -> UV (BK kv) (BK kv') ->
  sres_u (interact_val pv kv) (interact_val pv' kv').
Proof.
  intros pv pv' kv kv' HP HK. inversion HK; subst.
  - simpl. econstructor; eauto. constructor; auto.
  - inversion HP; subst; simpl; auto.
    + eapply u_select; eauto.
    + econstructor; eauto. constructor; auto.
    + constructor; auto.
  - inversion HP; subst; simpl; auto.
    + eapply u_select; eauto.
    + econstructor; eauto. constructor; auto.
    + constructor; auto.
  - inversion HP; subst; simpl; try (constructor; auto).
    econstructor; eauto. constructor; auto.
Qed.

Lemma u_interact_mu : forall G ch cd a s e a' s' e' kv kv',
  aeq_s ((a, ch, a') :: G) s s' -> UE G e e' -> UV (BK kv) (BK kv') ->
  sres_u (interact_mu cd a s e kv) (interact_mu cd a' s' e' kv').
Proof.
  intros G ch cd a s e a' s' e' kv kv' A HE HK.
  assert (D : UC (Run s ((a, BK kv) :: e)) (Run s' ((a', BK kv') :: e'))) by (econstructor; eauto; constructor; auto).
  destruct cd; simpl; [|exact D].
  inversion HK; subst; try exact D.
  simpl. econstructor; eauto. constructor; auto. econstructor; eauto.
Qed.

Lemma u_cut_with_k : forall G cd pr pr' e e' kv kv', aeq_t G pr pr' -> UE G e e' -> UV (BK kv) (BK kv') ->
  sres_u (cut_with_k cd pr e kv) (cut_with_k cd pr' e' kv').
Proof.
  intros G cd pr pr' e e' kv kv' A HE HK. inversion A; subst; simpl; auto.
  - pose proof (ue_lookup _ _ _ HE _ _ H) as L.
    destruct (clookup e x) as [v|], (clookup e' x') as [v'|]; try contradiction; simpl; auto.
    destruct (UV_kind _ _ L) as [(a & b & -> & ->)|(a & b & -> & ->)]; simpl; auto.
    apply u_interact_val; auto.
  - apply u_interact_val; auto. constructor.
  - eapply u_interact_mu; eauto.
  - apply u_interact_val; auto. econstructor; eauto.
Qed.

Lemma u_finish : forall f f' vals vals', UF f f' -> UVs vals vals' ->
  sres_u (finish_args p f vals) (finish_args p1 f' vals').
Proof.
  intros f f' vals vals' HF HV. inversion HF; subst; simpl.
  - pose proof (Hdefs f0) as D.
    destruct (cfind_def p f0) as [d|], (cfind_def p1 f0) as [d1|]; try contradiction; simpl; auto.
    destruct D as [CL A].
    pose proof (u_cbind _ _ _ _ _ _ _ CL HV UE_nil) as B. rewrite app_nil_r in B.
    destruct (cbind (cvars (cdctx d)) vals []), (cbind (cvars (cdctx d1)) vals' []); try contradiction; simpl; auto.
    econstructor; eauto.
  - constructor; auto. constructor; auto.
  - constructor; auto. constructor; auto.
Qed.
Lemma u_start : forall G args args' e e' f f', aeq_as G args args' -> UE G e e' -> UF f f' ->
  sres_u (start_args p args e f) (start_args p1 args' e' f').
Proof.
  intros G args args' e e' f f' A HE HF. inversion A; subst; simpl.
  - apply u_finish; auto. constructor.
  - econstructor; eauto. econstructor; eauto. constructor.
Qed.

Lemma u_as_int : forall v v', UV v v' -> as_int v' = as_int v.
Proof. intros v v' H. inversion H; subst; reflexivity. Qed.

Definition nx (t : cterm) : Prop := match t with CXtor _ _ _ _ => False | _ => True end.
Definition hp (t : cterm) : Prop := match t with CXtor _ _ _ _ | COp _ _ _ => False | _ => True end.
Lemma cstep_heads : forall q pr ty k e, hp pr -> nx k ->
  cstep q (Run (CCut pr ty k) e) =
  match khead k e with inl kv => cut_with_k (is_codata q ty) pr e kv | inr why => stuck why end.
Proof. intros q pr ty k e A B. destruct pr; try contradiction; destruct k; try contradiction; reflexivity. Qed.
Lemma cstep_xtorK : forall q pr ty c tag args t e, nx pr ->
  cstep q (Run (CCut pr ty (CXtor c tag args t)) e) = start_args q args e (FinXtorK tag (MCutP (is_codata q ty) pr e)).
Proof. intros q pr ty c tag args t e A. destruct pr; try contradiction; reflexivity. Qed.
Lemma cstep_op : forall q a o b ty k e, nx k ->
  cstep q (Run (CCut (COp a o b) ty k) e) = SNext (Arg (CProducer a) e (MOpL o b e (MCutK k e))).
Proof. intros q a o b ty k e A. destruct k; try contradiction; reflexivity. Qed.

Lemma u_heads : forall G pr pr' k k' ty e e', aeq_t G pr pr' -> aeq_t G k k' -> UE G e e' ->
  sres_u (match khead k e with inl kv => cut_with_k (is_codata p ty) pr e kv | inr why => stuck why end)
         (match khead k' e' with inl kv => cut_with_k (is_codata p1 ty) pr' e' kv | inr why => stuck why end).
Proof.
  intros G pr pr' k k' ty e e' AP AK HE. rewrite Hcod.
  pose proof (u_khead _ _ _ _ _ AK HE) as KH.
  destruct (khead k e), (khead k' e'); try contradiction; simpl; [|congruence].
  eapply u_cut_with_k; eauto.
Qed.

Lemma u_cut : forall G pr pr' k k' ty e e', aeq_t G pr pr' -> aeq_t G k k' -> UE G e e' ->
  sres_u (cstep p (Run (CCut pr ty k) e)) (cstep p1 (Run (CCut pr' ty k') e')).
Proof.
  intros G pr pr' k k' ty e e' AP AK HE.
  pose proof AP as AP0. pose proof AK as AK0.
  (* the four arms of the machine's cut, in its order: (Xtor, _), (_, Xtor), (head, head), (Op, _) *)
  inversion AP; subst.
  5: { (* the producer is an xtor *) simpl. eapply u_start; eauto. constructor. econstructor; eauto. }
  all: inversion AK; subst.
  (* the consumer is an xtor *)
  all: try (rewrite !cstep_xtorK by exact I; rewrite Hcod; eapply u_start; eauto; constructor; econstructor; eauto; fail).
  (* neither side is an xtor and the producer is no operator: [cstep_heads] demands exactly that, so it fails for Op *)
  all: try (rewrite !cstep_heads by exact I; eapply u_heads; eauto; fail).
  (* left: the producer is an operator *)
  all: rewrite !cstep_op by exact I; simpl; econstructor; eauto; [constructor; auto | econstructor; eauto; econstructor; eauto].
Qed.

Theorem u_step : forall c c', UC c c' -> sres_u (cstep p c) (cstep p1 c').
Proof.
  intros c c' H. inversion H; subst.
  - (* Run *)
    inversion H0; subst.
    + eapply u_cut; eauto.
    + simpl. econstructor; eauto; [constructor; auto | econstructor; eauto].
    + simpl. econstructor; eauto; [constructor; auto | econstructor; eauto].
    + simpl. eapply u_start; eauto. constructor.
    + simpl. econstructor; eauto; [constructor; auto | constructor].
  - (* Arg *)
    inversion H0; subst.
    + (* producer *)
      inversion H3; subst; simpl.
      * pose proof (ue_lookup _ _ _ H1 _ _ H4) as L.
        destruct (clookup e x) as [v|], (clookup e' x') as [v'|]; try contradiction; simpl; auto.
        destruct (UV_kind _ _ L) as [(a0 & b0 & -> & ->)|(a0 & b0 & -> & ->)]; simpl; auto.
        constructor; auto.
      * constructor; auto. constructor.
      * econstructor; eauto; [constructor; auto | econstructor; eauto].
      * rewrite Hcod. destruct (is_codata p ty).
        -- constructor; auto. econstructor; eauto.
        -- econstructor; eauto. constructor; auto. constructor; auto.
      * eapply u_start; eauto. constructor; auto.
      * constructor; auto. econstructor; eauto.
    + (* consumer *)
      inversion H3; subst; simpl; auto.
      * pose proof (ue_lookup _ _ _ H1 _ _ H4) as L.
        destruct (clookup e x) as [v|], (clookup e' x') as [v'|]; try contradiction; simpl; auto.
        destruct (UV_kind _ _ L) as [(a0 & b0 & -> & ->)|(a0 & b0 & -> & ->)]; simpl; auto.
        constructor; auto.
      * rewrite Hcod. destruct (is_codata p ty).
        -- econstructor; eauto. constructor; auto. constructor; auto.
        -- constructor; auto. econstructor; eauto.
      * eapply u_start; eauto. constructor; auto.
      * constructor; auto. econstructor; eauto.
  - (* App *)
    inversion H0; subst; simpl; rewrite ?(u_as_int _ _ H1).
    + (* MArgs *)
      inversion H3; subst.
      * apply u_finish; auto. apply UVs_rev_append; [assumption | constructor; [assumption | constructor]].
      * econstructor; eauto. econstructor; eauto. constructor; auto.
    + destruct (as_int v); simpl; auto. econstructor; eauto; [constructor; auto | constructor; auto].
    + destruct (as_int v); simpl; auto. destruct (eval_op (ax_binop o) x z); simpl; auto. constructor; auto. constructor.
    + destruct (as_int v); simpl; auto. inversion H2; subst.
      * econstructor; eauto. destruct (eval_cmp (ax_ifsort so) z 0); auto.
      * econstructor; eauto; [constructor; auto | econstructor; eauto].
    + destruct (as_int v); simpl; auto. econstructor; eauto. destruct (eval_cmp (ax_ifsort so) x z); auto.
    + destruct (as_int v); simpl; auto. repeat split; auto. econstructor; eauto.
    + destruct (as_int v); simpl; auto.
    + destruct (UV_kind _ _ H1) as [(a0 & b0 & -> & ->)|(a0 & b0 & -> & ->)]; simpl; auto.
      pose proof (u_khead _ _ _ _ _ H2 H3) as KH.
      destruct (khead k e), (khead k' e'); try contradiction; simpl; [|congruence].
      apply u_interact_val; auto.
    + destruct (UV_kind _ _ H1) as [(a0 & b0 & -> & ->)|(a0 & b0 & -> & ->)]; simpl; auto.
      eapply u_cut_with_k; eauto.
Qed.

Theorem u_crun : forall fuel c c' out, UC c c' -> crun fuel p1 c' out = crun fuel p c out.
Proof.
  induction fuel as [|f IH]; intros c c' out H; simpl; [reflexivity|].
  pose proof (u_step c c' H) as S.
  destruct (cstep p c) as [c2|nl z c2|o], (cstep p1 c') as [c2'|nl' z' c2'|o']; simpl in S; try contradiction.
  - apply IH; exact S.
  - destruct S as (-> & -> & S). apply IH; exact S.
  - subst o'. reflexivity.
Qed.
End USim.
