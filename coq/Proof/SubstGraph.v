(* The move graph and the reference-count updates of a Substitute statement (substitution.rs):
   (A) the edges of `connections (transpose re ctx) ctx (map fst re)`,
   (B) in-degree <= 1, duplicate-free target sets, sorted keys,
   (C) one reference-count operation per object variable, in binding order,
   generically over a back end satisfying [backend_ok], and the x86 instance. *)
From Coq Require Import List ZArith NArith String Bool Lia Sorted Permutation.
From SCC Require Import Base.Sexp Lang.AxSyn Model.ParMoves Model.Backend Model.X86.
Import ListNotations.
(* AxSyn's [ifsort] constructors shadow those of [comparison] *)
Local Notation Lt := Datatypes.Lt (only parsing).
Local Notation Gt := Datatypes.Gt (only parsing).

Record sto {K : Type} (cmp : K -> K -> comparison) : Prop := {
  sto_eq : forall a b, cmp a b = Datatypes.Eq <-> a = b;
  sto_antisym : forall a b, cmp b a = CompOpp (cmp a b);
  sto_trans : forall a b c, cmp a b = Lt -> cmp b c = Lt -> cmp a c = Lt }.

Definition lexc {A B : Type} (c1 : A -> A -> comparison) (c2 : B -> B -> comparison) (a b : A * B) : comparison :=
  match c1 (fst a) (fst b) with Datatypes.Eq => c2 (snd a) (snd b) | Lt => Lt | Gt => Gt end.

Lemma sto_refl {K} (cmp : K -> K -> comparison) : sto cmp -> forall a, cmp a a = Datatypes.Eq.
Proof. intros S a. now apply (sto_eq _ S). Qed.

Lemma sto_lex {A B} (c1 : A -> A -> comparison) (c2 : B -> B -> comparison) :
  sto c1 -> sto c2 -> sto (lexc c1 c2).
Proof.
  intros S1 S2. split.
  - intros [a1 a2] [b1 b2]. unfold lexc; cbn. split.
    + destruct (c1 a1 b1) eqn:E1; try discriminate. intros E2.
      apply (sto_eq _ S1) in E1. apply (sto_eq _ S2) in E2. congruence.
    + intros E. inversion E; subst. now rewrite (sto_refl _ S1), (sto_refl _ S2).
  - intros [a1 a2] [b1 b2]. unfold lexc; cbn.
    rewrite (sto_antisym _ S1 a1 b1). destruct (c1 a1 b1); cbn; auto. apply (sto_antisym _ S2).
  - intros [a1 a2] [b1 b2] [d1 d2]. unfold lexc; cbn.
    destruct (c1 a1 b1) eqn:E1; try discriminate; destruct (c1 b1 d1) eqn:E2; try discriminate; intros H1 H2.
    + apply (sto_eq _ S1) in E1, E2. subst. rewrite (sto_refl _ S1). eapply (sto_trans _ S2); eauto.
    + apply (sto_eq _ S1) in E1. subst. now rewrite E2.
    + apply (sto_eq _ S1) in E2. subst. now rewrite E1.
    + now rewrite (sto_trans _ S1 _ _ _ E1 E2).
Qed.

Lemma sto_inj {A K} (cmp : K -> K -> comparison) (f : A -> K) :
  sto cmp -> (forall a b, f a = f b -> a = b) -> sto (fun a b => cmp (f a) (f b)).
Proof.
  intros S I. split.
  - intros a b. rewrite (sto_eq _ S). split; [apply I|congruence].
  - intros; apply (sto_antisym _ S).
  - intros a b c; apply (sto_trans _ S).
Qed.

Lemma sto_ext {K} (c1 c2 : K -> K -> comparison) : (forall a b, c1 a b = c2 a b) -> sto c1 -> sto c2.
Proof.
  intros E S. split.
  - intros; rewrite <- E; apply (sto_eq _ S).
  - intros; rewrite <- !E; apply (sto_antisym _ S).
  - intros a b c; rewrite <- !E; apply (sto_trans _ S).
Qed.

Lemma sto_N : sto N.compare.
Proof.
  split.
  - apply N.compare_eq_iff.
  - intros; apply N.compare_antisym.
  - intros a b c. rewrite !N.compare_lt_iff. lia.
Qed.

Lemma sto_ascii : sto Ascii.compare.
Proof.
  apply (sto_inj N.compare Ascii.N_of_ascii sto_N).
  intros a b E. rewrite <- (Ascii.ascii_N_embedding a), <- (Ascii.ascii_N_embedding b). now rewrite E.
Qed.

Lemma sto_string : sto String.compare.
Proof.
  assert (R : forall s, String.compare s s = Datatypes.Eq).
  { intros s. pose proof (String.compare_antisym s s) as H. destruct (String.compare s s); cbn in H; congruence. }
  split.
  - intros a b; split; [apply String.compare_eq_iff|intros ->; apply R].
  - intros; apply String.compare_antisym.
  - induction a as [|x a IH]; intros [|y b] [|z c]; cbn; try congruence.
    destruct (Ascii.compare x y) eqn:E1; try discriminate; destruct (Ascii.compare y z) eqn:E2; try discriminate; intros H1 H2.
    + apply (sto_eq _ sto_ascii) in E1, E2. subst. rewrite (sto_refl _ sto_ascii). eauto.
    + apply (sto_eq _ sto_ascii) in E1. subst. now rewrite E2.
    + apply (sto_eq _ sto_ascii) in E2. subst. now rewrite E1.
    + now rewrite (sto_trans _ sto_ascii _ _ _ E1 E2).
Qed.

Lemma sto_ident : sto ident_compare.
Proof.
  apply (sto_ext (lexc String.compare N.compare)); [|apply sto_lex; [apply sto_string|apply sto_N]].
  intros [a1 a2] [b1 b2]. unfold lexc, ident_compare; cbn. now destruct (String.compare a1 b1).
Qed.

Lemma sto_ty : sto ty_compare.
Proof.
  split.
  - intros [|x] [|y]; cbn; try (split; congruence).
    rewrite (sto_eq _ sto_ident). split; congruence.
  - intros [|x] [|y]; cbn; auto. apply (sto_antisym _ sto_ident).
  - intros [|x] [|y] [|z]; cbn; try congruence. apply (sto_trans _ sto_ident).
Qed.

Lemma sto_binding : sto binding_compare.
Proof.
  apply (sto_ext (fun a b => lexc ident_compare (lexc N.compare ty_compare)
                                  (bvar a, (chi_rank (bchi a), bty a)) (bvar b, (chi_rank (bchi b), bty b)))).
  - intros a b. unfold lexc, binding_compare; cbn.
    destruct (ident_compare (bvar a) (bvar b)); auto.
  - apply (sto_inj (lexc ident_compare (lexc N.compare ty_compare))
                   (fun a => (bvar a, (chi_rank (bchi a), bty a)))).
    + apply sto_lex; [apply sto_ident|apply sto_lex; [apply sto_N|apply sto_ty]].
    + intros [v1 c1 t1] [v2 c2 t2]; cbn. intros E. inversion E; subst.
      f_equal. destruct c1, c2; cbn in *; congruence.
Qed.

Section Ord.
Context {K : Type} (cmp : K -> K -> comparison).
Hypothesis Heq : forall a b, cmp a b = Datatypes.Eq <-> a = b.

Definition ceqb (a b : K) : bool := match cmp a b with Datatypes.Eq => true | _ => false end.
Lemma ceqb_spec a b : reflect (a = b) (ceqb a b).
Proof.
  unfold ceqb. destruct (cmp a b) eqn:E; constructor.
  - now apply Heq.
  - intros H; apply Heq in H; congruence.
  - intros H; apply Heq in H; congruence.
Qed.
Lemma ceqb_refl a : ceqb a a = true.
Proof. destruct (ceqb_spec a a); congruence. Qed.

Lemma lookup_map_insert k (v : list K) m k' :
  lookup K ceqb (map_insert cmp k v m) k' = if ceqb k' k then Some v else lookup K ceqb m k'.
Proof.
  induction m as [|[k1 v1] m IH]; cbn [map_insert lookup]; [reflexivity|].
  destruct (cmp k k1) eqn:E; cbn [lookup].
  - apply Heq in E; subst. destruct (ceqb k' k1); reflexivity.
  - reflexivity.
  - rewrite IH. destruct (ceqb_spec k' k1), (ceqb_spec k' k); auto.
    subst. rewrite (proj2 (Heq _ _) eq_refl) in E. discriminate.
Qed.

Lemma In_map_insert {V} (kv : K * V) k v m : In kv (map_insert cmp k v m) -> kv = (k, v) \/ In kv m.
Proof.
  induction m as [|[k1 v1] m IH]; cbn [map_insert]; [cbn; intuition|].
  destruct (cmp k k1); cbn; intuition.
Qed.

Lemma keys_map_insert {V} x k (v : V) m : In x (map fst (map_insert cmp k v m)) <-> x = k \/ In x (map fst m).
Proof.
  induction m as [|[k1 v1] m IH]; cbn [map_insert map fst]; [cbn; intuition|].
  destruct (cmp k k1) eqn:E; cbn [map fst In].
  - apply Heq in E; subst. intuition.
  - intuition.
  - rewrite IH. intuition.
Qed.

Lemma map_insert_perm {V} k (v : V) m :
  (forall k', In k' (map fst m) -> k' <> k) -> Permutation (map_insert cmp k v m) ((k, v) :: m).
Proof.
  induction m as [|[k1 v1] m IH]; cbn [map_insert]; intros F; [reflexivity|].
  destruct (cmp k k1) eqn:E.
  - apply Heq in E. exfalso. apply (F k1); cbn; auto.
  - reflexivity.
  - rewrite IH; [apply perm_swap|]. intros k' H; apply F; cbn; auto.
Qed.

Lemma In_set_insert x k s : In x (set_insert cmp k s) <-> x = k \/ In x s.
Proof.
  induction s as [|k1 s IH]; cbn [set_insert]; [cbn; intuition|].
  destruct (cmp k k1) eqn:E; cbn [In].
  - apply Heq in E; subst. intuition.
  - intuition.
  - rewrite IH. intuition.
Qed.

Lemma In_set_of_list x l : In x (set_of_list cmp l) <-> In x l.
Proof.
  unfold set_of_list.
  assert (G : forall s, In x (fold_left (fun s k => set_insert cmp k s) l s) <-> In x l \/ In x s).
  { induction l as [|k l IH]; intros s; cbn [fold_left]; [cbn; tauto|].
    rewrite IH, In_set_insert. cbn; intuition. }
  rewrite G. cbn; tauto.
Qed.

(* lookups after a sequence of inserts, when equal keys carry equal values *)
Definition insf (m : list (K * list K)) (kv : K * list K) := map_insert cmp (fst kv) (snd kv) m.

Lemma lookup_fold_insert kvs : forall m a v,
  (forall v1 v2, In (a, v1) kvs -> In (a, v2) kvs -> v1 = v2) ->
  (lookup K ceqb (fold_left insf kvs m) a = Some v <->
   In (a, v) kvs \/ (~ In a (map fst kvs) /\ lookup K ceqb m a = Some v)).
Proof.
  induction kvs as [|[k0 v0] kvs IH]; intros m a v F; cbn [fold_left].
  - cbn; tauto.
  - rewrite IH by (intros; apply F; cbn; auto).
    unfold insf. cbn [fst snd]. rewrite lookup_map_insert. cbn [map fst In].
    destruct (ceqb_spec a k0) as [->|N].
    + split.
      * intros [H|[H1 H2]]; [auto|]. inversion H2; subst. auto.
      * intros [[H|H]|[H _]]; [|left; auto|exfalso; auto].
        inversion H; subst.
        destruct (in_dec (fun x y => reflect_dec _ _ (ceqb_spec x y)) k0 (map fst kvs)) as [I|I]; [|auto].
        apply in_map_iff in I as ([k1 v1] & E1 & I). cbn in E1; subst.
        left. rewrite (F v v1); cbn; auto.
    + split.
      * intros [H|[H1 H2]]; [auto|]. right; split; auto. intros [E|E]; [congruence|auto].
      * intros [[H|H]|[H1 H2]]; [inversion H; congruence|auto|]. right; split; auto.
Qed.

Lemma keys_fold_insert kvs : forall m x,
  In x (map fst (fold_left insf kvs m)) <-> In x (map fst kvs) \/ In x (map fst m).
Proof.
  induction kvs as [|[k0 v0] kvs IH]; intros m x; cbn [fold_left]; [cbn; tauto|].
  rewrite IH. unfold insf. rewrite keys_map_insert. cbn. intuition.
Qed.

Lemma values_fold_insert (P : list K -> Prop) kvs : forall m,
  Forall (fun kv => P (snd kv)) kvs -> Forall (fun kv => P (snd kv)) m ->
  Forall (fun kv => P (snd kv)) (fold_left insf kvs m).
Proof.
  induction kvs as [|[k0 v0] kvs IH]; intros m F1 F2; cbn [fold_left]; [auto|].
  inversion F1; subst. apply IH; auto.
  apply Forall_forall. intros kv H. apply In_map_insert in H as [->|H]; [auto|].
  rewrite Forall_forall in F2; auto.
Qed.

Lemma lookup_In m a v : lookup K ceqb m a = Some v -> exists k, In (k, v) m.
Proof.
  induction m as [|[k1 v1] m IH]; cbn; [discriminate|].
  destruct (ceqb a k1).
  - intros E; inversion E; subst. eauto.
  - intros H. destruct (IH H) as (k & I). eauto.
Qed.

Lemma lookup_keys m a : In a (map fst m) <-> exists v, lookup K ceqb m a = Some v.
Proof.
  induction m as [|[k1 v1] m IH]; cbn.
  - split; [tauto|intros (v & H); discriminate].
  - destruct (ceqb_spec a k1) as [->|N].
    + split; eauto.
    + rewrite IH. split; [intros [H|H]; [congruence|auto]|auto].
Qed.

Hypothesis Hanti : forall a b, cmp b a = CompOpp (cmp a b).
Hypothesis Htrans : forall a b c, cmp a b = Lt -> cmp b c = Lt -> cmp a c = Lt.
Definition clt (a b : K) : Prop := cmp a b = Lt.

Lemma gt_lt a b : cmp a b = Gt -> cmp b a = Lt.
Proof. intros H. rewrite Hanti, H. reflexivity. Qed.

Lemma set_insert_sorted k s : StronglySorted clt s -> StronglySorted clt (set_insert cmp k s).
Proof.
  induction s as [|k1 s IH]; cbn [set_insert]; intros S.
  - repeat constructor.
  - apply StronglySorted_inv in S as (S & F). destruct (cmp k k1) eqn:E.
    + constructor; auto.
    + constructor; [constructor; auto|]. constructor; [exact E|].
      eapply Forall_impl; [|exact F]. intros x Hx. eapply Htrans; eauto.
    + constructor; [auto|]. apply Forall_forall. intros x Hx.
      apply In_set_insert in Hx as [->|Hx]; [now apply gt_lt|].
      rewrite Forall_forall in F; auto.
Qed.

Lemma set_of_list_sorted l : StronglySorted clt (set_of_list cmp l).
Proof.
  unfold set_of_list.
  assert (G : forall s, StronglySorted clt s -> StronglySorted clt (fold_left (fun s k => set_insert cmp k s) l s)).
  { induction l as [|k l IH]; intros s S; cbn [fold_left]; auto using set_insert_sorted. }
  apply G. constructor.
Qed.

Lemma sorted_nodup l : StronglySorted clt l -> NoDup l.
Proof.
  induction 1 as [|a l S IH F]; constructor; auto.
  intros I. rewrite Forall_forall in F. specialize (F _ I). unfold clt in F.
  assert (cmp a a = Datatypes.Eq) by now apply Heq. congruence.
Qed.

Lemma map_insert_sorted {V} k (v : V) m :
  StronglySorted clt (map fst m) -> StronglySorted clt (map fst (map_insert cmp k v m)).
Proof.
  induction m as [|[k1 v1] m IH]; cbn [map_insert map fst]; intros S.
  - repeat constructor.
  - apply StronglySorted_inv in S as (S & F). destruct (cmp k k1) eqn:E; cbn [map fst].
    + apply Heq in E; subst. constructor; auto.
    + constructor; [constructor; auto|]. constructor; [exact E|].
      eapply Forall_impl; [|exact F]. intros x Hx. eapply Htrans; eauto.
    + constructor; [auto|]. apply Forall_forall. intros x Hx.
      apply keys_map_insert in Hx as [->|Hx]; [now apply gt_lt|].
      rewrite Forall_forall in F; auto.
Qed.

Lemma fold_insert_sorted kvs : forall m,
  StronglySorted clt (map fst m) -> StronglySorted clt (map fst (fold_left insf kvs m)).
Proof.
  induction kvs as [|kv kvs IH]; intros m S; cbn [fold_left]; auto.
  apply IH. apply map_insert_sorted; auto.
Qed.
End Ord.

Lemma rmap_Forall2 {X Y} (f : X -> res Y) l : forall ys,
  rmap f l = Ok ys -> Forall2 (fun x y => f x = Ok y) l ys.
Proof.
  induction l as [|x l IH]; cbn; intros ys H.
  - inversion H; constructor.
  - destruct (f x) eqn:E; cbn in H; try discriminate.
    destruct (rmap f l) eqn:E2; cbn in H; try discriminate.
    inversion H; subst. constructor; auto.
Qed.
Lemma Forall2_In_l {X Y} (R : X -> Y -> Prop) l l' x :
  Forall2 R l l' -> In x l -> exists y, In y l' /\ R x y.
Proof. induction 1; cbn; [tauto|]. intros [<-|H1]; [eauto|]. destruct (IHForall2 H1) as (y0 & ? & ?); eauto. Qed.
Lemma Forall2_In_r {X Y} (R : X -> Y -> Prop) l l' y :
  Forall2 R l l' -> In y l' -> exists x, In x l /\ R x y.
Proof. induction 1; cbn; [tauto|]. intros [<-|H1]; [eauto|]. destruct (IHForall2 H1) as (x0 & ? & ?); eauto. Qed.
Lemma Permutation_filter {X} (f : X -> bool) l l' : Permutation l l' -> Permutation (filter f l) (filter f l').
Proof.
  induction 1; cbn.
  - constructor.
  - destruct (f x); auto.
  - destruct (f x), (f y); auto. apply perm_swap.
  - etransitivity; eauto.
Qed.
Lemma StronglySorted_filter {X} (R : X -> X -> Prop) (f : X -> bool) l :
  StronglySorted R l -> StronglySorted R (filter f l).
Proof.
  induction 1 as [|a l S IH F]; cbn; [constructor|].
  destruct (f a); auto. constructor; auto.
  rewrite Forall_forall in *. intros x Hx. apply filter_In in Hx as (Hx & _). auto.
Qed.
Lemma StronglySorted_map_inv {X Y} (R : Y -> Y -> Prop) (f : X -> Y) l :
  StronglySorted R (map f l) -> StronglySorted (fun x y => R (f x) (f y)) l.
Proof.
  induction l as [|a l IH]; cbn; intros S; [constructor|].
  apply StronglySorted_inv in S as (S & F). constructor; auto.
  rewrite Forall_forall in *. intros x Hx. apply F. now apply in_map.
Qed.

Lemma position_of_nth c : forall i b k,
  NoDup (ids c) -> nth_error c i = Some b -> position_of c (idn (bvar b)) k = Some (k + N.of_nat i)%N.
Proof.
  induction c as [|b0 c IH]; intros i b k ND H; [destruct i; discriminate|].
  cbn in ND. inversion ND as [|? ? NI ND']; subst. destruct i as [|i]; cbn in H; cbn [position_of].
  - inversion H; subst. rewrite N.eqb_refl. f_equal. lia.
  - destruct (N.eqb_spec (idn (bvar b0)) (idn (bvar b))) as [E|E].
    + exfalso. apply NI. rewrite E. apply nth_error_In in H.
      unfold ids. now apply (in_map (fun b => idn (bvar b))).
    + rewrite (IH i b (k + 1)%N ND' H). f_equal. lia.
Qed.
Lemma position_of_inv c : forall id k p,
  position_of c id k = Some p ->
  exists i b, p = (k + N.of_nat i)%N /\ nth_error c i = Some b /\ idn (bvar b) = id.
Proof.
  induction c as [|b0 c IH]; intros id k p H; cbn in H; [discriminate|].
  destruct (N.eqb_spec (idn (bvar b0)) id) as [E|E].
  - inversion H; subst. exists O, b0. cbn. repeat split. lia.
  - apply IH in H as (i & b & -> & Hn & Hi). exists (S i), b. cbn. repeat split; auto. lia.
Qed.
Lemma ids_nth_inj c i i' b b' :
  NoDup (ids c) -> nth_error c i = Some b -> nth_error c i' = Some b' ->
  idn (bvar b) = idn (bvar b') -> i = i'.
Proof.
  intros ND H H' E. rewrite NoDup_nth_error in ND. apply ND.
  - unfold ids. rewrite map_length. apply nth_error_Some. congruence.
  - unfold ids. rewrite (map_nth_error _ _ _ H), (map_nth_error _ _ _ H'). now rewrite E.
Qed.

Section G.
Context {Code Temp : Type} (B : backend Code Temp).

(* what the generic code needs from a back end's Temporary type and numbering *)
Record backend_ok : Prop := {
  cmp_eq : forall a b, b_tcompare B a b = Datatypes.Eq <-> a = b;
  cmp_antisym : forall a b, b_tcompare B b a = CompOpp (b_tcompare B a b);
  cmp_trans : forall a b c, b_tcompare B a b = Lt -> b_tcompare B b c = Lt -> b_tcompare B a c = Lt;
  pos_inj : forall p q t, b_temporary_from_position B p = Ok t -> b_temporary_from_position B q = Ok t -> p = q }.

Definition tpos (n : tnum) (i : nat) : res Temp := b_temporary_from_position B (2 * N.of_nat i + tnum_n n).
Definition new_ids (re : list (binding * ident)) : list N := map (fun p => idn (bvar (fst p))) re.

Lemma teqb_spec : backend_ok -> forall a b, reflect (a = b) (teqb B a b).
Proof. intros OKB. exact (ceqb_spec (b_tcompare B) (cmp_eq OKB)). Qed.

Lemma tpos_inj : backend_ok -> forall n n' i i' t, tpos n i = Ok t -> tpos n' i' = Ok t -> n = n' /\ i = i'.
Proof.
  intros OKB n n' i i' t H H'. pose proof (pos_inj OKB _ _ _ H H') as E.
  destruct n, n'; unfold tnum_n in E; split; try reflexivity; try lia.
Qed.

Lemma vt_tpos n c i b :
  NoDup (ids c) -> nth_error c i = Some b -> variable_temporary B n c (idn (bvar b)) = tpos n i.
Proof.
  intros ND H. unfold variable_temporary, tpos. rewrite (position_of_nth c i b 0 ND H).
  now rewrite N.add_0_l.
Qed.
Lemma ids_new re : ids (map fst re) = new_ids re.
Proof. unfold ids, new_ids. now rewrite map_map. Qed.
Lemma vt_tpos_new n re j p :
  NoDup (new_ids re) -> nth_error re j = Some p ->
  variable_temporary B n (map fst re) (idn (bvar (fst p))) = tpos n j.
Proof.
  intros ND H. apply vt_tpos; [now rewrite ids_new|]. now apply map_nth_error.
Qed.

Definition targets (re : list (binding * ident)) (b : binding) : list N :=
  map (fun p => idn (bvar (fst p))) (filter (fun p => N.eqb (idn (bvar b)) (idn (snd p))) re).

Lemma transpose_fold_perm re l : forall m0,
  NoDup l -> (forall b, In b l -> ~ In b (map fst m0)) ->
  Permutation (fold_left (fun m b => map_insert binding_compare b (targets re b) m) l m0)
              (map (fun b => (b, targets re b)) l ++ m0).
Proof.
  induction l as [|b l IH]; intros m0 ND F; cbn [fold_left map app]; [reflexivity|].
  inversion ND as [|? ? NI ND']; subst.
  rewrite IH; auto.
  - rewrite (map_insert_perm binding_compare (sto_eq _ sto_binding)).
    + symmetry. apply Permutation_middle.
    + intros k' Hk ->. apply (F b); cbn; auto.
  - intros b' Hb' Hk. apply (keys_map_insert binding_compare (sto_eq _ sto_binding)) in Hk as [->|Hk]; [auto|].
    apply (F b'); cbn; auto.
Qed.
Lemma transpose_perm re c :
  NoDup c -> Permutation (transpose re c) (map (fun b => (b, targets re b)) c).
Proof.
  intros ND. unfold transpose.
  rewrite <- (app_nil_r (map _ c)). apply (transpose_fold_perm re c []); auto.
Qed.
Lemma In_transpose re c b tg :
  NoDup c -> (In (b, tg) (transpose re c) <-> In b c /\ tg = targets re b).
Proof.
  intros ND. pose proof (transpose_perm re c ND) as P. split.
  - intros H. apply (Permutation_in _ P) in H. apply in_map_iff in H as (b' & E & H). inversion E; subst; auto.
  - intros (H & ->). apply (Permutation_in _ (Permutation_sym P)). apply in_map_iff; eauto.
Qed.
Lemma transpose_sorted re c :
  StronglySorted (fun a b => binding_compare a b = Lt) (map fst (transpose re c)).
Proof.
  unfold transpose.
  assert (G : forall l m0, StronglySorted (clt binding_compare) (map fst m0) ->
            StronglySorted (clt binding_compare)
              (map fst (fold_left (fun m b => map_insert binding_compare b (targets re b) m) l m0))).
  { induction l as [|b l IH]; intros m0 S; cbn [fold_left]; auto.
    apply IH. apply map_insert_sorted; auto.
    - apply (sto_eq _ sto_binding).
    - apply (sto_antisym _ sto_binding).
    - apply (sto_trans _ sto_binding). }
  apply (G c []). constructor.
Qed.

(* connections as a sequence of inserts *)
Definition allowed (n : tnum) (b : binding) : Prop := n = Snd \/ bchi b <> Ext.
Definition op := (tnum * binding * list N)%type.
Definition ops_of (bt : binding * list N) : list op :=
  match bchi (fst bt) with
  | Ext => [(Snd, fst bt, snd bt)]
  | _ => [(Fst, fst bt, snd bt); (Snd, fst bt, snd bt)]
  end.
Definition op_kv (c nc : ctx) (o : op) : res (Temp * list Temp) :=
  let '(n, b, tg) := o in
  dor k <- variable_temporary B n c (idn (bvar b));
  dor ts <- rmap (fun t => variable_temporary B n nc t) tg;
  Ok (k, set_of_list (b_tcompare B) ts).

Lemma In_ops_of o bt : In o (ops_of bt) <-> exists n, allowed n (fst bt) /\ o = (n, fst bt, snd bt).
Proof.
  unfold ops_of, allowed. destruct (bchi (fst bt)) eqn:E; cbn; split.
  - intros [<-|[<-|[]]]; [exists Fst|exists Snd]; (split; [right; discriminate|reflexivity]).
  - intros (n & _ & ->). destruct n; auto.
  - intros [<-|[<-|[]]]; [exists Fst|exists Snd]; (split; [right; discriminate|reflexivity]).
  - intros (n & _ & ->). destruct n; auto.
  - intros [<-|[]]; exists Snd; split; auto.
  - intros (n & [->|A] & ->); [auto|congruence].
Qed.

Definition ins (c nc : ctx) (n : tnum) (b : binding) (tg : list N) (m : list (Temp * list Temp)) :=
  dor k <- variable_temporary B n c (idn (bvar b));
  dor ts <- rmap (fun t => variable_temporary B n nc t) tg;
  Ok (map_insert (b_tcompare B) k (set_of_list (b_tcompare B) ts) m).
Definition conn_step (c nc : ctx) (rm : res (list (Temp * list Temp))) (bt : binding * list N) :=
  dor m <- rm;
  let '(b, tg) := bt in
  match bchi b with
  | Ext => ins c nc Snd b tg m
  | _ => dor m1 <- ins c nc Fst b tg m; ins c nc Snd b tg m1
  end.
Lemma connections_unfold tm c nc : connections B tm c nc = fold_left (conn_step c nc) tm (Ok []).
Proof. reflexivity. Qed.
Lemma ins_ok c nc n b tg m m' :
  ins c nc n b tg m = Ok m' -> exists kv, op_kv c nc (n, b, tg) = Ok kv /\ m' = insf (b_tcompare B) m kv.
Proof.
  unfold ins, op_kv. destruct (variable_temporary B n c _); cbn; try discriminate.
  destruct (rmap _ tg); cbn; try discriminate. intros E; inversion E; subst. eexists; split; eauto.
Qed.
Lemma conn_fold_err c nc tm e : fold_left (conn_step c nc) tm (Err e) = Err e.
Proof. induction tm; cbn; auto. Qed.
Lemma conn_fold c nc tm : forall m am,
  fold_left (conn_step c nc) tm (Ok m) = Ok am ->
  exists kvs, Forall2 (fun o kv => op_kv c nc o = Ok kv) (flat_map ops_of tm) kvs /\
              am = fold_left (insf (b_tcompare B)) kvs m.
Proof.
  induction tm as [|[b tg] tm IH]; intros m am H; cbn [fold_left flat_map] in *.
  - inversion H; subst. exists []. split; constructor.
  - destruct (conn_step c nc (Ok m) (b, tg)) as [m'|e] eqn:E; [|rewrite conn_fold_err in H; discriminate].
    apply IH in H as (kvs & F & ->). unfold conn_step in E; cbn [rbind] in E.
    unfold ops_of; cbn [fst snd]. destruct (bchi b).
    1,2: destruct (ins c nc Fst b tg m) eqn:E1; cbn [rbind] in E; try discriminate;
         apply ins_ok in E1 as (kv1 & K1 & ->); apply ins_ok in E as (kv2 & K2 & ->);
         exists (kv1 :: kv2 :: kvs); split; [repeat constructor; auto|reflexivity].
    apply ins_ok in E as (kv2 & K2 & ->). exists (kv2 :: kvs). split; [repeat constructor; auto|reflexivity].
Qed.

Section Conn.
Hypothesis OKB : backend_ok.
Variables (c : ctx) (re : list (binding * ident)) (am : list (Temp * list Temp)).
Hypothesis ND1 : NoDup (ids c).
Hypothesis ND2 : NoDup (new_ids re).
Hypothesis HC : connections B (transpose re c) c (map fst re) = Ok am.

Lemma op_kv_spec n i b a v :
  nth_error c i = Some b -> op_kv c (map fst re) (n, b, targets re b) = Ok (a, v) ->
  tpos n i = Ok a /\
  forall x, In x v <-> exists j pj, nth_error re j = Some pj /\ idn (snd pj) = idn (bvar b) /\ tpos n j = Ok x.
Proof.
  intros Hi. unfold op_kv. rewrite (vt_tpos n c i b ND1 Hi).
  destruct (tpos n i) as [t|] eqn:T; cbn [rbind]; try discriminate.
  destruct (rmap _ (targets re b)) as [ts|] eqn:R; cbn [rbind]; try discriminate.
  intros E; inversion E; subst. split; auto. intros x.
  rewrite (In_set_of_list _ (cmp_eq OKB)). apply rmap_Forall2 in R. split.
  - intros Hx. destruct (Forall2_In_r _ _ _ _ R Hx) as (t0 & Ht & Vt).
    unfold targets in Ht. apply in_map_iff in Ht as (p & <- & Hp).
    apply filter_In in Hp as (Hp & Q). apply N.eqb_eq in Q.
    apply In_nth_error in Hp as (j & Hj). exists j, p. repeat split; auto.
    now rewrite <- Vt, (vt_tpos_new n re j p ND2 Hj).
  - intros (j & pj & Hj & Q & Tx).
    assert (In (idn (bvar (fst pj))) (targets re b)) as I.
    { unfold targets. apply in_map_iff. exists pj. split; auto. apply filter_In. split.
      - eapply nth_error_In; eauto.
      - apply N.eqb_eq; auto. }
    destruct (Forall2_In_l _ _ _ _ R I) as (y & Hy & Vy). cbn beta in Vy.
    rewrite (vt_tpos_new n re j pj ND2 Hj), Tx in Vy. inversion Vy; subst; auto.
Qed.

Lemma ops_char o :
  In o (flat_map ops_of (transpose re c)) <->
  exists n i b, nth_error c i = Some b /\ allowed n b /\ o = (n, b, targets re b).
Proof.
  pose proof (NoDup_map_inv _ _ ND1) as ND. rewrite in_flat_map. split.
  - intros ([b tg] & H & Ho). apply (In_transpose re c b tg ND) in H as (H & ->).
    apply In_ops_of in Ho as (n & A & ->). cbn [fst snd] in *.
    apply In_nth_error in H as (i & H). eauto 6.
  - intros (n & i & b & H & A & ->). exists (b, targets re b). split.
    + apply In_transpose; auto. split; auto. eapply nth_error_In; eauto.
    + apply In_ops_of. exists n. cbn; auto.
Qed.

Lemma conn_kvs :
  exists kvs, Forall2 (fun o kv => op_kv c (map fst re) o = Ok kv) (flat_map ops_of (transpose re c)) kvs /\
              am = fold_left (insf (b_tcompare B)) kvs [].
Proof. pose proof HC as H. rewrite connections_unfold in H. now apply conn_fold in H. Qed.

Lemma am_lookup a v :
  lookup Temp (teqb B) am a = Some v <->
  exists n i b, nth_error c i = Some b /\ allowed n b /\ op_kv c (map fst re) (n, b, targets re b) = Ok (a, v).
Proof.
  destruct conn_kvs as (kvs & F & ->).
  change (teqb B) with (ceqb (b_tcompare B)).
  assert (CH : forall v0, In (a, v0) kvs <->
            exists n i b, nth_error c i = Some b /\ allowed n b /\ op_kv c (map fst re) (n, b, targets re b) = Ok (a, v0)).
  { intros v0. split.
    - intros H. destruct (Forall2_In_r _ _ _ _ F H) as (o & Ho & K).
      apply ops_char in Ho as (n & i & b & Hi & A & ->). eauto 6.
    - intros (n & i & b & Hi & A & K).
      assert (In (n, b, targets re b) (flat_map ops_of (transpose re c))) as Ho by (apply ops_char; eauto 6).
      destruct (Forall2_In_l _ _ _ _ F Ho) as (kv & Hkv & K'). cbn beta in K'. congruence. }
  rewrite (lookup_fold_insert _ (cmp_eq OKB)).
  - rewrite CH. cbn [lookup]. split; [intros [H|[_ H]]; [auto|discriminate]|auto].
  - intros v1 v2 H1 H2. apply CH in H1 as (n1 & i1 & b1 & Hi1 & A1 & K1). apply CH in H2 as (n2 & i2 & b2 & Hi2 & A2 & K2).
    destruct (op_kv_spec _ _ _ _ _ Hi1 K1) as (T1 & _). destruct (op_kv_spec _ _ _ _ _ Hi2 K2) as (T2 & _).
    destruct (tpos_inj OKB _ _ _ _ _ T1 T2) as (-> & ->). congruence.
Qed.

Lemma all_ok n i b :
  nth_error c i = Some b -> allowed n b ->
  exists a v, op_kv c (map fst re) (n, b, targets re b) = Ok (a, v) /\ lookup Temp (teqb B) am a = Some v.
Proof.
  intros Hi A. destruct conn_kvs as (kvs & F & _).
  assert (In (n, b, targets re b) (flat_map ops_of (transpose re c))) as Ho by (apply ops_char; eauto 6).
  destruct (Forall2_In_l _ _ _ _ F Ho) as ([a v] & Hkv & K). cbn beta in K.
  exists a, v. split; auto. apply am_lookup. eauto 6.
Qed.

Lemma edges_char a b :
  edge Temp (teqb B) am a b <->
    exists i j bi pj n, nth_error c i = Some bi /\ nth_error re j = Some pj /\
       idn (snd pj) = idn (bvar bi) /\ (n = Snd \/ bchi bi <> Ext) /\ tpos n i = Ok a /\ tpos n j = Ok b.
Proof.
  unfold edge. split.
  - intros (ts & L & I). apply am_lookup in L as (n & i & bi & Hi & A & K).
    destruct (op_kv_spec _ _ _ _ _ Hi K) as (T & S). apply S in I as (j & pj & Hj & Q & Tj).
    exists i, j, bi, pj, n. auto 7.
  - intros (i & j & bi & pj & n & Hi & Hj & Q & A & Ti & Tj).
    destruct (all_ok n i bi Hi A) as (a' & v & K & L).
    destruct (op_kv_spec _ _ _ _ _ Hi K) as (T & S).
    assert (a' = a) by congruence. subst a'. exists v. split; auto. apply S. eauto.
Qed.

Lemma am_props :
  indeg1 Temp (teqb B) am /\ nodup_targets Temp (teqb B) am /\
  StronglySorted (fun a b => b_tcompare B a b = Lt) (map fst am) /\
  (forall a, In a (map fst am) -> exists i bi n, nth_error c i = Some bi /\ (n = Snd \/ bchi bi <> Ext) /\ tpos n i = Ok a).
Proof.
  split; [|split; [|split]].
  - intros a a' b E1 E2.
    apply edges_char in E1 as (i1 & j1 & b1 & p1 & n1 & Hi1 & Hj1 & Q1 & A1 & Ti1 & Tj1).
    apply edges_char in E2 as (i2 & j2 & b2 & p2 & n2 & Hi2 & Hj2 & Q2 & A2 & Ti2 & Tj2).
    destruct (tpos_inj OKB _ _ _ _ _ Tj1 Tj2) as (-> & ->).
    assert (p1 = p2) by congruence. subst p2.
    assert (i1 = i2) by (eapply ids_nth_inj; eauto; congruence). subst i2. congruence.
  - intros a ts L. apply am_lookup in L as (n & i & b & Hi & A & K).
    unfold op_kv in K. destruct (variable_temporary B n c _); cbn [rbind] in K; try discriminate.
    destruct (rmap _ (targets re b)) as [ts0|]; cbn [rbind] in K; try discriminate.
    inversion K; subst.
    apply (sorted_nodup (b_tcompare B) (cmp_eq OKB)).
    apply set_of_list_sorted; [apply (cmp_eq OKB)|apply (cmp_antisym OKB)|apply (cmp_trans OKB)].
  - destruct conn_kvs as (kvs & _ & ->).
    apply (fold_insert_sorted (b_tcompare B) (cmp_eq OKB) (cmp_antisym OKB) (cmp_trans OKB)). constructor.
  - intros a Ha. apply (lookup_keys (b_tcompare B) (cmp_eq OKB)) in Ha as (v & L).
    change (ceqb (b_tcompare B)) with (teqb B) in L.
    apply am_lookup in L as (n & i & b & Hi & A & K).
    destruct (op_kv_spec _ _ _ _ _ Hi K) as (T & _). eauto 7.
Qed.
End Conn.

(* (A) the edges of the move graph of a Substitute are exactly: old variable i -> new variable j whose
   source is i, for the second temporary always and for the first temporary of non-Ext variables *)
Theorem connections_edges (OKB : backend_ok) ctx re am :
  NoDup (ids ctx) -> NoDup (new_ids re) ->
  connections B (transpose re ctx) ctx (map fst re) = Ok am ->
  forall a b, edge Temp (teqb B) am a b <->
    exists i j bi pj n, nth_error ctx i = Some bi /\ nth_error re j = Some pj /\
       idn (snd pj) = idn (bvar bi) /\ (n = Snd \/ bchi bi <> Ext) /\ tpos n i = Ok a /\ tpos n j = Ok b.
Proof. intros. now apply edges_char. Qed.

(* (B) hence in-degree <= 1, duplicate-free target sets, keys in strictly increasing order, and
   every key is the temporary of a context variable *)
Theorem transpose_connections_indeg1 (OKB : backend_ok) ctx re am :
  NoDup (ids ctx) -> NoDup (new_ids re) ->
  connections B (transpose re ctx) ctx (map fst re) = Ok am ->
  indeg1 Temp (teqb B) am /\ nodup_targets Temp (teqb B) am /\
  StronglySorted (fun a b => b_tcompare B a b = Lt) (map fst am) /\
  (forall a, In a (map fst am) -> exists i bi n, nth_error ctx i = Some bi /\ (n = Snd \/ bchi bi <> Ext) /\ tpos n i = Ok a).
Proof. intros. now apply am_props with (re := re). Qed.

(* (C) reference-count updates: one abstract operation per non-Ext variable, in binding order *)
Inductive rc_op := RcErase (t : Temp) | RcShare (t : Temp) (n : N).
Definition emit_rc_op (o : rc_op) (lc : N) : list Code * N :=
  match o with RcErase t => b_erase B t lc | RcShare t n => b_share_n B t n lc end.
Fixpoint emit_rc (ops : list rc_op) (lc : N) : list Code * N :=
  match ops with
  | [] => ([], lc)
  | o :: r => let '(c1, lc1) := emit_rc_op o lc in let '(c2, lc2) := emit_rc r lc1 in ((c1 ++ c2)%list, lc2)
  end.
Definition count_targets (re : list (binding * ident)) (b : binding) : nat :=
  List.length (filter (fun p => N.eqb (idn (bvar b)) (idn (snd p))) re).
(* the operation for an object variable at context index i with k targets *)
Definition rc_op_for (t : Temp) (k : nat) : list rc_op :=
  match k with O => [RcErase t] | S O => [] | S (S n) => [RcShare t (N.of_nat (S n))] end.
Definition is_obj (b : binding) : bool := match bchi b with Ext => false | _ => true end.

Lemma emit_rc_app a b lc :
  emit_rc (a ++ b) lc =
  let '(c1, l1) := emit_rc a lc in let '(c2, l2) := emit_rc b l1 in ((c1 ++ c2)%list, l2).
Proof.
  revert lc; induction a as [|o a IH]; intros lc; cbn [emit_rc app].
  - destruct (emit_rc b lc); reflexivity.
  - destruct (emit_rc_op o lc) as [c0 l0]. rewrite IH.
    destruct (emit_rc a l0) as [c1 l1]. destruct (emit_rc b l1) as [c2 l2]. now rewrite app_assoc.
Qed.

Lemma urc_spec c i b k lc cl :
  NoDup (ids c) -> nth_error c i = Some b ->
  update_reference_count B (bvar b) c k lc = Ok cl ->
  exists t, tpos Fst i = Ok t /\ cl = emit_rc (rc_op_for t k) lc.
Proof.
  intros ND Hi. unfold update_reference_count. rewrite (vt_tpos Fst c i b ND Hi).
  destruct (tpos Fst i) as [t|]; cbn [rbind]; try discriminate.
  intros H. exists t. split; auto.
  destruct k as [|[|k]]; inversion H; subst; cbn [rc_op_for emit_rc emit_rc_op]; auto.
  - destruct (b_erase B t lc). now rewrite app_nil_r.
  - destruct (b_share_n B t _ lc). now rewrite app_nil_r.
Qed.

Lemma cwc_spec c re : NoDup (ids c) -> forall tm lc code lc',
  (forall b tg, In (b, tg) tm -> In b c /\ tg = targets re b) ->
  code_weakening_contraction B tm c lc = Ok (code, lc') ->
  exists order : list (nat * binding),
    map snd order = filter is_obj (map fst tm) /\
    (forall i b, In (i, b) order -> nth_error c i = Some b) /\
    exists ops, Forall2 (fun ib o => exists t, tpos Fst (fst ib) = Ok t /\ o = rc_op_for t (count_targets re (snd ib))) order ops /\
                (code, lc') = emit_rc (List.concat ops) lc.
Proof.
  intros ND. induction tm as [|[b tg] tm IH]; intros lc code lc' F H; cbn [code_weakening_contraction] in H.
  - inversion H; subst. exists []. cbn. repeat split; [tauto|]. exists []. split; [constructor|reflexivity].
  - assert (F' : forall b tg, In (b, tg) tm -> In b c /\ tg = targets re b) by (intros; apply F; cbn; auto).
    destruct (F b tg (or_introl eq_refl)) as (Hb & ->).
    cbn [map fst filter]. unfold is_obj at 1.
    destruct (bchi b) eqn:E.
    3: { apply (IH _ _ _ F' H). }
    all: destruct (update_reference_count B (bvar b) c _ lc) as [[c1 lc1]|] eqn:U; cbn [rbind] in H; try discriminate;
      destruct (code_weakening_contraction B tm c lc1) as [[c2 lc2]|] eqn:R; cbn [rbind] in H; try discriminate;
      inversion H; subst;
      apply In_nth_error in Hb as (i & Hi);
      destruct (urc_spec _ _ _ _ _ _ ND Hi U) as (t & T & E1);
      destruct (IH _ _ _ F' R) as (order & O1 & O2 & ops & O3 & O4);
      exists ((i, b) :: order); cbn [map snd]; (split; [now rewrite O1|]);
      (split; [intros i0 b0 [X|X]; [inversion X; subst; auto|auto]|]);
      exists (rc_op_for t (count_targets re b) :: ops); (split; [constructor; [exists t; auto|auto]|]);
      cbn [List.concat]; rewrite emit_rc_app;
      (replace (count_targets re b) with (List.length (targets re b)) by (unfold targets, count_targets; apply map_length));
      rewrite <- E1, <- O4; reflexivity.
Qed.

Theorem weakening_contraction_counts ctx re lc code lc' :
  NoDup (ids ctx) ->
  code_weakening_contraction B (transpose re ctx) ctx lc = Ok (code, lc') ->
  exists order : list (nat * binding),           (* (context index, binding) of the object variables *)
    Permutation (map snd order) (filter is_obj ctx) /\
    StronglySorted (fun x y => binding_compare (snd x) (snd y) = Lt) order /\
    (forall i b, In (i, b) order -> nth_error ctx i = Some b) /\
    exists ops, Forall2 (fun ib o => exists t, tpos Fst (fst ib) = Ok t /\ o = rc_op_for t (count_targets re (snd ib))) order ops /\
                (code, lc') = emit_rc (List.concat ops) lc.
Proof.
  intros ND H. pose proof (NoDup_map_inv _ _ ND) as ND'.
  destruct (cwc_spec ctx re ND (transpose re ctx) lc code lc') as (order & O1 & O2 & O3); auto.
  { intros b tg Hb. now apply In_transpose in Hb. }
  exists order. split; [|split; [|split]]; auto.
  - rewrite O1. apply Permutation_filter.
    rewrite (Permutation_map fst (transpose_perm re ctx ND')). rewrite map_map. cbn [fst]. now rewrite map_id.
  - apply (StronglySorted_map_inv (fun a b => binding_compare a b = Lt) snd). rewrite O1.
    apply StronglySorted_filter. apply transpose_sorted.
Qed.
End G.

Lemma x86_backend_ok : backend_ok x86_backend.
Proof.
  split; cbn [x86_backend x86_backend_with b_tcompare b_temporary_from_position].
  - intros [x|x] [y|y]; cbn; try (split; congruence); rewrite N.compare_eq_iff; split; congruence.
  - intros [x|x] [y|y]; cbn; auto using N.compare_antisym.
  - intros [x|x] [y|y] [z|z]; cbn; try congruence; rewrite !N.compare_lt_iff; lia.
  - intros p q t. unfold temporary_from_position.
    change RESERVED with 4%N. change REGISTER_NUM with 16%N. change RESERVED_SPILLS with 1%N. change SPILL_NUM with 256%N.
    cbv zeta.
    destruct (N.ltb_spec (p + 4) 16); destruct (N.ltb_spec (q + 4) 16);
      repeat match goal with |- context [N.ltb ?a ?b] => destruct (N.ltb_spec a b) end;
      intros E1 E2; inversion E1; subst; inversion E2; lia.
Qed.

Print Assumptions connections_edges.
Print Assumptions transpose_connections_indeg1.
Print Assumptions weakening_contraction_counts.
Print Assumptions x86_backend_ok.
