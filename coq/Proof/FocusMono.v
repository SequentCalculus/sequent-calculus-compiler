(* C03, semantic preservation: the identifier counter never decreases through focus/bind
   (no assumption on the program; continuations must be monotone themselves).
   Proved as an instance of [focus_flow_all] (Section Flow: a property of results that holds of `Ok`,
   survives fresh_var and is kept by sequencing holds of every result of the bind_ and focus_ functions);
   the other instance is totality, [focus_total_stmt] in Proof/FocusExtra.v. *)
From Coq Require Import List ZArith NArith String Bool Lia.
From SCC Require Import Base.Sexp Lang.CoreSyn Model.Backend Model.Uniquify Model.Focus Model.FocusCheck
     Proof.CoreInd Proof.FocusKont.
Import ListNotations.
Open Scope list_scope.
Open Scope N_scope.

Definition kmono (k : kont) : Prop := forall b m s m', k b m = Ok (s, m') -> m <= m'.
Definition kvmono (k : kontv) : Prop := forall bs m s m', k bs m = Ok (s, m') -> m <= m'.

(* What holds of a result of focus.rs whenever it holds of `Ok` at the same counter, survives the increment of
   the counter by fresh_var, is kept by sequencing, and holds of the panics that W does not exclude.
   W is what is assumed of the boolean focus_wf conditions: `= true` for totality, nothing for monotonicity. *)
Section Flow.
Variable P : forall X : Type, N -> res (X * N) -> Prop.
Variable W : bool -> Prop.
Hypothesis W_true : W true.
Hypothesis W_and : forall a b, W (a && b) -> W a /\ W b.
Hypothesis P_err : forall X m e, W false -> P X m (Err e).
Hypothesis P_ok : forall X m (x : X), P X m (Ok (x, m)).
Hypothesis P_fresh : forall X m r, P X (m + 1) r -> P X m r.
Hypothesis P_bind : forall X Y m (r : res (X * N)) (f : X * N -> res (Y * N)),
  P X m r -> (forall x m1, P Y m1 (f (x, m1))) -> P Y m (rbind r f).

Definition flowK (k : kont) : Prop := forall b m, P _ m (k b m).
Definition flowKV (k : kontv) : Prop := forall bs m, P _ m (k bs m).
Definition flowB (t : cterm) : Prop := forall c k m, W (wf_term c t) -> flowK k -> P _ m (bind_term c t k m).
Definition flowF (t : cterm) : Prop := forall c m, W (wf_term c t) -> W (negb (is_xtor t)) -> W (negb (is_op t)) -> P _ m (focus_term c t m).
Definition flowBa (a : carg) : Prop := forall k m, W (wf_arg a) -> flowK k -> P _ m (bind_arg a k m).
Definition flowFc (cl : cclause) : Prop := forall m, W (wf_clause cl) -> P _ m (focus_clause cl m).
Definition flowFs (s : cstmt) : Prop := forall m, W (wf_stmt s) -> P _ m (focus_stmt s m).
Definition flow_sub (t : cterm) : Prop :=
  match t with
  | CXtor _ _ args _ => Forall flowBa args
  | COp a _ b => flowB a /\ flowB b
  | _ => True
  end.

Lemma bind_many_flow : forall args, Forall flowBa args -> forall kv m, W (forallb wf_arg args) -> flowKV kv -> P _ m (bind_many args kv m).
Proof.
  induction 1 as [|a r Ha Hr IH]; intros kv m Wa K.
  - apply K.
  - rewrite bind_many_cons. simpl in Wa. apply W_and in Wa. destruct Wa as [W1 W2].
    apply Ha; [exact W1|]. intros b m1. unfold many_k. apply IH; [exact W2|]. intros bs m2. apply K.
Qed.
Lemma focus_clauses_flow : forall cls, Forall flowFc cls -> forall m, W (forallb wf_clause cls) -> P _ m (maprs focus_clause cls m).
Proof.
  induction 1 as [|cl r Hc Hr IH]; intros m Wc; simpl.
  - apply P_ok.
  - simpl in Wc. apply W_and in Wc. destruct Wc as [W1 W2].
    apply P_bind; [apply Hc; exact W1 | intros cl' m1]. apply P_bind; [apply IH; exact W2 | intros r' m2; apply P_ok].
Qed.
(* k applied to the fresh (co)variable, then the rest *)
Lemma fresh_flow : forall Y k base ch ty m (f : fsstmt * N -> res (Y * N)),
  flowK k -> (forall x m1, P Y m1 (f (x, m1))) -> P Y m (rbind (k (mkcb (base, m + 1) ch ty) (m + 1)) f).
Proof. intros Y k base ch ty m f K Hf. apply P_fresh. apply P_bind; [apply K | exact Hf]. Qed.
Lemma W_cns_not_op : forall q, W (wf_term CCns q) -> W (negb (is_op q)).
Proof. intros q H. destruct q; try exact W_true. exact H. Qed.

Lemma focus_flow_all : (forall t, flowB t /\ flowF t /\ flow_sub t) /\ (forall a, flowBa a) /\ (forall c, flowFc c) /\ (forall s, flowFs s).
Proof.
  apply core_mutind.
  - (* XVar *) intros c0 v ty. split; [|split; [|exact I]].
    + intros c k m Wt K. rewrite bind_xvar. apply K.
    + intros c m Wt X O. apply P_ok.
  - (* Lit *) intros n. split; [|split; [|exact I]].
    + intros c k m Wt K. destruct c; [|apply P_err; exact Wt]. rewrite bind_lit.
      apply fresh_flow; [exact K | intros s m2; apply P_ok].
    + intros c m Wt X O. destruct c; [apply P_ok | apply P_err; exact Wt].
  - (* Op *) intros a o b (Ba & _) (Bb & _). split; [|split; [|split; assumption]].
    + intros c k m Wt K. simpl in Wt. apply W_and in Wt. destruct Wt as [Wt Wb]. apply W_and in Wt. destruct Wt as [Wc Wa].
      destruct c; [|apply P_err; exact Wc]. rewrite bind_op.
      apply Ba; [exact Wa|]. intros b1 m1. unfold opL_k. apply Bb; [exact Wb|]. intros b2 m2. unfold opR_k, fresh_var, fresh_identifier.
      apply fresh_flow; [exact K | intros s m3; apply P_ok].
    + intros c m Wt X O. destruct c; apply P_err; exact O.
  - (* Mu *) intros c0 v s ty Fs. split; [|split; [|exact I]].
    + intros c k m Wt K. destruct c.
      * rewrite bind_mu_prd. apply P_fresh. apply P_bind; [apply Fs; exact Wt | intros s' m2].
        apply P_bind; [apply K | intros sk m3; apply P_ok].
      * rewrite bind_mu_cns. apply fresh_flow; [exact K | intros sk m2].
        apply P_bind; [apply Fs; exact Wt | intros s' m3; apply P_ok].
    + intros c m Wt X O. rewrite focus_term_mu. apply P_bind; [apply Fs; exact Wt | intros s' m1; apply P_ok].
  - (* Xtor *) intros c0 x args ty FA. split; [|split; [|exact FA]].
    + intros c k m Wt K. destruct c; [rewrite bind_xtor_prd | rewrite bind_xtor_cns];
        (apply bind_many_flow; [exact FA | exact Wt |]); intros bs m1; unfold xtorP_kv, xtorK_kv, fresh_var, fresh_covar, fresh_identifier;
        (apply fresh_flow; [exact K | intros sk m2; apply P_ok]).
    + intros c m Wt X O. apply P_err. exact X.
  - (* XCase *) intros c0 cls ty FC. split; [|split; [|exact I]].
    + intros c k m Wt K. destruct c; [rewrite bind_xcase_prd | rewrite bind_xcase_cns];
        (apply fresh_flow; [exact K | intros sk m2]);
        (apply P_bind; [apply focus_clauses_flow; [exact FC | exact Wt] | intros cls' m3; apply P_ok]).
    + intros c m Wt X O. rewrite focus_term_xcase.
      apply P_bind; [apply focus_clauses_flow; [exact FC | exact Wt] | intros cls' m1; apply P_ok].
  - (* Producer *) intros p (Bp & _) k m Wa K. rewrite bind_arg_prd. apply Bp; assumption.
  - (* Consumer *) intros p (Bp & _) k m Wa K. rewrite bind_arg_cns. apply Bp; assumption.
  - (* Clause *) intros c0 x ctx body Fb m Wc. rewrite focus_clause_eq. apply P_bind; [apply Fb; exact Wc | intros b' m1; apply P_ok].
  - (* Cut *) intros p ty q (Bp & Fp & Sp) (Bq & Fq & Sq) m Ws. simpl in Ws.
    apply W_and in Ws. destruct Ws as [Ws NOX]. apply W_and in Ws. destruct Ws as [Ws NXX]. apply W_and in Ws. destruct Ws as [Wp Wq].
    pose proof (W_cns_not_op q Wq) as Oq.
    destruct (is_xtor p) eqn:Xp.
    { destruct p as [| | | |pc px pargs pty|]; try discriminate. simpl in NXX, Sp.
      rewrite focus_cut_xtorP. apply bind_many_flow; [exact Sp | exact Wp |]. intros bs m1. unfold cutP_kv.
      apply P_bind; [apply Fq; assumption | intros q' m2; apply P_ok]. }
    destruct (is_xtor q) eqn:Xq.
    { destruct q as [| | | |qc qx qargs qty|]; try discriminate. simpl in NOX, Sq. rewrite andb_true_r in NOX.
      rewrite focus_cut_xtorK by (destruct p; try exact I; discriminate).
      apply bind_many_flow; [exact Sq | exact Wq |]. intros bs m1. unfold cutK_kv.
      apply P_bind; [apply Fp; [exact Wp | rewrite Xp; exact W_true | exact NOX] | intros p' m2; apply P_ok]. }
    assert (Nq : W (negb (is_xtor q))) by (rewrite Xq; exact W_true).
    destruct (is_op p) eqn:Op.
    { destruct p as [| |a o b| | |]; try discriminate. destruct Sp as [Ba Bb]. simpl in Wp.
      apply W_and in Wp. destruct Wp as [Wa Wb].
      rewrite focus_cut_op by (destruct q; try exact I; discriminate).
      apply Ba; [exact Wa|]. intros b1 m1. unfold cutopL_k. apply Bb; [exact Wb|]. intros b2 m2. unfold cutopR_k.
      apply P_bind; [apply Fq; assumption | intros q' m3; apply P_ok]. }
    rewrite focus_cut_heads by (destruct p; try exact I; discriminate || destruct q; try exact I; discriminate).
    apply P_bind; [apply Fp; [exact Wp | rewrite Xp; exact W_true | rewrite Op; exact W_true] | intros p' m1].
    apply P_bind; [apply Fq; assumption | intros q' m2; apply P_ok].
  - (* IfC *) intros so a bo t e (Ba & _) Hb Ft Fe m Ws. simpl in Ws.
    apply W_and in Ws. destruct Ws as [Ws We]. apply W_and in Ws. destruct Ws as [Ws Wt]. apply W_and in Ws. destruct Ws as [Wa Wb].
    assert (HB : forall v vo m1, P _ m1 (dor (t', m2) <- focus_stmt t m1; dor (e', m3) <- focus_stmt e m2; Ok (FsIfC so v vo t' e', m3))).
    { intros v vo m1. apply P_bind; [apply Ft; exact Wt | intros t' m2]. apply P_bind; [apply Fe; exact We | intros e' m3; apply P_ok]. }
    rewrite focus_ifc. apply Ba; [exact Wa|]. intros b1 m1. unfold if1_k. destruct bo as [b0|].
    + destruct Hb as (Bb & _). apply Bb; [exact Wb|]. intros b2 m2. apply HB.
    + apply HB.
  - (* Print *) intros nl a next (Ba & _) Fn m Ws. simpl in Ws. apply W_and in Ws. destruct Ws as [Wa Wn].
    rewrite focus_print. apply Ba; [exact Wa|]. intros b1 m1. unfold print_k.
    apply P_bind; [apply Fn; exact Wn | intros n' m2; apply P_ok].
  - (* Call *) intros f args ty FA m Ws. rewrite focus_call. apply bind_many_flow; [exact FA | exact Ws |]. intros bs m1. apply P_ok.
  - (* Exit *) intros a ty (Ba & _) m Ws. rewrite focus_exit. apply Ba; [exact Ws|]. intros b1 m1. apply P_ok.
Qed.
End Flow.

(* monotonicity: no assumption on the program *)
Definition Pmono (X : Type) (m : N) (r : res (X * N)) : Prop := forall x m', r = Ok (x, m') -> m <= m'.
Lemma focus_mono_all :
  (forall t, flowB Pmono (fun _ => True) t /\ flowF Pmono (fun _ => True) t /\ flow_sub Pmono (fun _ => True) t) /\
  (forall a, flowBa Pmono (fun _ => True) a) /\ (forall c, flowFc Pmono (fun _ => True) c) /\ (forall s, flowFs Pmono (fun _ => True) s).
Proof.
  apply focus_flow_all; unfold Pmono.
  - exact I.
  - intros; split; exact I.
  - intros X m e _ x m' H. discriminate.
  - intros X m x y m' H. okinv H. lia.
  - intros X m r H x m' E. specialize (H x m' E). lia.
  - intros X Y m r f Hr Hf y m' H. apply rbind_ok in H. destruct H as ([x m1] & E & H). specialize (Hr x m1 E). specialize (Hf x m1 y m' H). lia.
Qed.

Lemma focus_stmt_mono : forall s m s' m', focus_stmt s m = Ok (s', m') -> m <= m'.
Proof. intros s m s' m' H. exact (proj2 (proj2 (proj2 focus_mono_all)) s m I s' m' H). Qed.
Lemma focus_term_mono : forall c t m t' m', focus_term c t m = Ok (t', m') -> m <= m'.
Proof. intros c t m t' m' H. exact (proj1 (proj2 (proj1 focus_mono_all t)) c m I I I t' m' H). Qed.
Lemma focus_clauses_mono' : forall cls m cls' m', maprs focus_clause cls m = Ok (cls', m') -> m <= m'.
Proof.
  intros cls m cls' m' H. refine (focus_clauses_flow Pmono (fun _ => True) _ _ _ cls _ m I cls' m' H).
  - intros; split; exact I.
  - intros X m0 x y m1 E. okinv E. lia.
  - intros X Y m0 r f Hr Hf y m1 E. apply rbind_ok in E. destruct E as ([x m2] & E & E'). specialize (Hr x m2 E). specialize (Hf x m2 y m1 E'). lia.
  - apply Forall_forall. intros cl _. exact (proj1 (proj2 (proj2 focus_mono_all)) cl).
Qed.
Lemma bind_term_mono : forall c t k m s m', kmono k -> bind_term c t k m = Ok (s, m') -> m <= m'.
Proof. intros c t k m s m' K H. exact (proj1 (proj1 focus_mono_all t) c k m I K s m' H). Qed.
Lemma bind_arg_mono : forall a k m s m', kmono k -> bind_arg a k m = Ok (s, m') -> m <= m'.
Proof. intros a k m s m' K H. exact (proj1 (proj2 focus_mono_all) a k m I K s m' H). Qed.
Lemma bind_many_mono' : forall args kv m s m', kvmono kv -> bind_many args kv m = Ok (s, m') -> m <= m'.
Proof.
  intros args kv m s m' K H. refine (bind_many_flow Pmono (fun _ => True) _ args _ kv m I K s m' H).
  - intros; split; exact I.
  - apply Forall_forall. intros a _. exact (proj1 (proj2 focus_mono_all) a).
Qed.

(* the named continuations are monotone *)
Lemma kmono_opR : forall b1 o k, kmono k -> kmono (opR_k b1 o k).
Proof. intros b1 o k K b2 mb s m' H. unfold opR_k in H. simpl in H. rinv H. okinv H. apply K in E. lia. Qed.
Lemma kmono_opL : forall t o k, kmono k -> kmono (opL_k t o k).
Proof. intros t o k K b1 ma s m' H. unfold opL_k in H. eapply bind_term_mono; [|exact H]. apply kmono_opR; exact K. Qed.
Lemma kmono_cutopR : forall b1 o ty q, kmono (cutopR_k b1 o ty q).
Proof. intros b1 o ty q b2 mb s m' H. unfold cutopR_k in H. rinv H. okinv H. eapply focus_term_mono; eauto. Qed.
Lemma kmono_cutopL : forall t o ty q, kmono (cutopL_k t o ty q).
Proof. intros t o ty q b1 ma s m' H. unfold cutopL_k in H. eapply bind_term_mono; [|exact H]. apply kmono_cutopR. Qed.
Lemma kmono_if2 : forall so b1 t e, kmono (if2_k so b1 t e).
Proof.
  intros so b1 t e b2 mb s m' H. unfold if2_k in H. rinv H. rinv H. okinv H.
  apply focus_stmt_mono in E. apply focus_stmt_mono in E0. lia.
Qed.
Lemma kmono_if1 : forall so b t e, kmono (if1_k so b t e).
Proof.
  intros so b t e b1 ma s m' H. unfold if1_k in H. destruct b as [b0|].
  - eapply bind_term_mono; [|exact H]. apply kmono_if2.
  - rinv H. rinv H. okinv H. apply focus_stmt_mono in E. apply focus_stmt_mono in E0. lia.
Qed.
Lemma kmono_print : forall nl next, kmono (print_k nl next).
Proof. intros nl next b1 ma s m' H. unfold print_k in H. rinv H. okinv H. eapply focus_stmt_mono; eauto. Qed.
Lemma kmono_exit : kmono exit_k.
Proof. intros b1 ma s m' H. unfold exit_k in H. okinv H. lia. Qed.
Lemma kvmono_cons : forall b kv, kvmono kv -> kvmono (cons_kv b kv).
Proof. intros b kv K bs m s m' H. unfold cons_kv in H. eapply K; eauto. Qed.
Lemma kmono_many : forall r kv, kvmono kv -> kmono (many_k r kv).
Proof. intros r kv K b m s m' H. unfold many_k in H. eapply bind_many_mono'; [|exact H]. apply kvmono_cons; exact K. Qed.
Lemma kvmono_xtorP : forall c' x ty k, kmono k -> kvmono (xtorP_kv c' x ty k).
Proof. intros c' x ty k K bs m s m' H. unfold xtorP_kv in H. simpl in H. rinv H. okinv H. apply K in E. lia. Qed.
Lemma kvmono_xtorK : forall c' x ty k, kmono k -> kvmono (xtorK_kv c' x ty k).
Proof. intros c' x ty k K bs m s m' H. unfold xtorK_kv in H. simpl in H. rinv H. okinv H. apply K in E. lia. Qed.
Lemma kvmono_cutP : forall pc px ty q, kvmono (cutP_kv pc px ty q).
Proof. intros pc px ty q bs m s m' H. unfold cutP_kv in H. rinv H. okinv H. eapply focus_term_mono; eauto. Qed.
Lemma kvmono_cutK : forall qc qx ty p, kvmono (cutK_kv qc qx ty p).
Proof. intros qc qx ty p bs m s m' H. unfold cutK_kv in H. rinv H. okinv H. eapply focus_term_mono; eauto. Qed.
Lemma kvmono_call : forall f, kvmono (call_kv f).
Proof. intros f bs m s m' H. unfold call_kv in H. okinv H. lia. Qed.
