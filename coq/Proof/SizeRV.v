(* C19: the cost model of the RISC-V back end (Model/RV.v), discharged:
       rv_K = 20 + 13 * FIELDS_PER_BLOCK
   (no spills: single operations <= 11; store of n fields <= (1 + n) * (19 + 13 * FIELDS_PER_BLOCK),
   acquire_block = 15 + 12 * FIELDS_PER_BLOCK; load <= 20 * (1 + n); print emits nothing in the model -
   rv_compile rejects programs with a print statement, as the real back end panics there; parallel
   moves <= 4 * new + 2 * old). *)
From Coq Require Import String List ZArith NArith Bool Lia.
From SCC Require Import Base.Sexp Lang.AxSyn Lang.AxSize Model.ParMoves Model.Backend Model.RV Model.Linearize Model.LinCheck
     Proof.LinBasics Proof.SubstGraph Proof.SubstBackends Proof.SizeLin Proof.SizeCodegen Proof.SizeExchange Proof.SizeCodegenWf.
From SCC Require Model.SizeWf.
Import ListNotations.
Open Scope list_scope.
Open Scope N_scope.
Local Arguments N.add : simpl never.
Local Arguments N.mul : simpl never.
Local Arguments N.sub : simpl never.
Local Arguments N.of_nat : simpl never.
Local Arguments len : simpl never.

Notation FPB := FIELDS_PER_BLOCK.
Notation rv_K := SizeWf.rv_K.

Lemma len_nseq : forall s l, len (nseq s l) = l.
Proof. intros. unfold nseq, len. rewrite map_length, seq_length. lia. Qed.

Lemma l_ifz : forall cond th el lc, len (fst (if_zero_then_else cond th el lc)) = 4 + len th + len el.
Proof. intros. unfold if_zero_then_else. cbn [fst]. lens. lia. Qed.
Lemma l_skip : forall cnd body lc, len (fst (skip_if_zero cnd body lc)) = 2 + len body.
Proof. intros. unfold skip_if_zero. cbn [fst]. lens. lia. Qed.
Lemma l_erase_block : forall t lc, len (fst (r_erase_block t lc)) = 11.
Proof.
  intros t lc. unfold r_erase_block.
  match goal with |- context [if_zero_then_else TEMP ?a ?b lc] =>
    pose proof (l_ifz TEMP a b lc) as H; destruct (if_zero_then_else TEMP a b lc) as [c lc1] end.
  cbn [fst] in H. revert H. lens. intros H. rewrite l_skip. lens. lia.
Qed.
Lemma l_share_block : forall t n lc, len (fst (r_share_block_n t n lc)) = 5.
Proof. intros. unfold r_share_block_n. rewrite l_skip. lens. lia. Qed.

Lemma l_erase_fields : forall r t lc, len (fst (erase_fields r t lc)) = 12 * FPB.
Proof.
  intros r t lc. unfold erase_fields.
  assert (G : forall l c lc0,
    len (fst (fold_left (fun (acc : list rcode * N) (offset : N) =>
               let '(c, lc) := acc in
               let '(c1, lc1) := r_erase_block t lc in
               (c ++ [LW t r (field_offset Fst offset)] ++ c1, lc1)) l (c, lc0))) = len c + 12 * len l).
  { induction l as [|o l IH]; intros c lc0; [cbn [fold_left fst]; lens; lia|].
    cbn [fold_left]. pose proof (l_erase_block t lc0) as H. destruct (r_erase_block t lc0) as [c1 lc1]. cbn [fst] in H.
    rewrite IH. lens. lia. }
  rewrite G, len_nseq. lens. lia.
Qed.
Lemma l_acquire : forall t t2 lc, len (fst (acquire_block t t2 lc)) = 15 + 12 * FPB.
Proof.
  intros t t2 lc. unfold acquire_block.
  pose proof (l_erase_fields HEAP t2 lc) as H1. destruct (erase_fields HEAP t2 lc) as [ef lc1]. cbn [fst] in H1.
  match goal with |- context [if_zero_then_else FREE ?a ?b lc1] =>
    pose proof (l_ifz FREE a b lc1) as H2; destruct (if_zero_then_else FREE a b lc1) as [inner lc2] end.
  cbn [fst] in H2.
  match goal with |- context [if_zero_then_else HEAP ?a ?b lc2] =>
    pose proof (l_ifz HEAP a b lc2) as H3; destruct (if_zero_then_else HEAP a b lc2) as [outer lc3] end.
  cbn [fst] in *. revert H2 H3; lens; intros H2 H3; lia.
Qed.
Lemma l_store_field : forall n c b o code, store_field n c b o = Ok code -> len code = 1.
Proof. intros n c b o code H. unfold store_field in H. bind H. inversion H; subst. reflexivity. Qed.
Lemma l_load_field : forall n c b o code, load_field n c b o = Ok code -> len code = 1.
Proof. intros n c b o code H. unfold load_field in H. bind H. inversion H; subst. reflexivity. Qed.
Lemma l_store_zeros : forall n b, len (store_zeros n b) = n.
Proof.
  intros n b. unfold store_zeros. rewrite <- (len_nseq 0 n) at 2. induction (nseq 0 n) as [|x l IH]; [reflexivity|].
  cbn [flat_map]. lens. unfold store_zero at 1. lens. lia.
Qed.
Lemma l_store_value : forall b rem blk o code, store_value b rem blk o = Ok code -> len code = 2.
Proof.
  intros b rem blk o code H. unfold store_value in H. bind H. apply l_store_field in E.
  destruct (bchi b).
  - bind H. inversion H; subst. apply l_store_field in E0. lens. lia.
  - bind H. inversion H; subst. apply l_store_field in E0. lens. lia.
  - inversion H; subst. lens. unfold store_zero. lens. lia.
Qed.
Lemma l_store_values : forall l rem blk ff code, store_values l rem blk ff = Ok code -> len code <= 2 * len l + ff.
Proof.
  induction l as [|b l IH]; intros rem blk ff code H; cbn [store_values] in H.
  - inversion H; subst. rewrite l_store_zeros. lens. lia.
  - bind H. bind H. inversion H; subst. apply l_store_value in E. apply IH in E0. lens. lia.
Qed.

(* one block of a store: the link field (<= 1), the padding zeros (<= FPB) and acquire_block (<= 15 + 12 * FPB) *)
Definition store_unit : N := 16 + 13 * FPB.
Lemma l_store_fields : forall fuel ts rem bp lc code lc',
  store_fields fuel ts rem bp lc = Ok (code, lc') -> len code <= N.of_nat fuel * store_unit + 2 * len ts + 1.
Proof.
  induction fuel as [|f IH]; intros ts rem bp lc code lc' H; [discriminate|].
  rewrite Nat2N.inj_succ, N.mul_succ_l.
  destruct ts as [|b0 ts0].
  - cbn [store_fields] in H. destruct bp.
    + bind H. inversion H; subst. lens. lia.
    + inversion H; subst. lens. lia.
  - cbn [store_fields] in H. remember (b0 :: ts0) as ts eqn:Ets. clear Ets b0 ts0.
    bind H. rename x into c0. bind H. rename x into c1. bind H. rename x into t. bind H. rename x into t2.
    set (cap := FPB - bp_n bp) in *.
    set (rl := if N.leb (N.of_nat (List.length ts)) cap then 0 else N.of_nat (List.length ts) - cap) in *.
    pose proof (l_acquire t t2 lc) as HA. destruct (acquire_block t t2 lc) as [c2 lc2]. cbn [fst] in HA.
    bind H. destruct x as [c3 lc3]. inversion H; subst; clear H.
    apply IH in E3. apply l_store_values in E0.
    assert (H0 : len c0 <= 1).
    { destruct bp; [inversion E; subst; lens; lia | apply l_store_field in E; lia]. }
    assert (Hcap : cap <= FPB) by (unfold cap; lia).
    pose proof (len_rev (skipn (N.to_nat rl) ts)) as Hrev.
    pose proof (len_firstn_skipn (N.to_nat rl) ts).
    lens. unfold store_unit in *. lia.
Qed.
Lemma l_store : forall a r lc code lc', r_store a r lc = Ok (code, lc') -> len code <= (19 + 13 * FPB) * (1 + len a).
Proof.
  intros a r lc code lc' H. unfold r_store in H. apply l_store_fields in H.
  rewrite Nat2N.inj_succ in H. fold (len a) in H. unfold store_unit in H. lia.
Qed.

Lemma l_load_value : forall b ex blk o m lc code lc', load_value b ex blk o m lc = Ok (code, lc') -> len code <= 7.
Proof.
  intros b ex blk o m lc code lc' H. unfold load_value in H. bind H. apply l_load_field in E.
  destruct (bchi b); [| |inversion H; subst; lia].
  (* Prd and Cns alike *)
  all: bind H; apply l_load_field in E0; destruct m; [inversion H; subst; lens; lia|].
  all: bind H; pose proof (l_share_block x1 1 lc) as HS; destruct (r_share_block_n x1 1 lc) as [c3 lc1].
  all: cbn [fst] in HS; inversion H; subst; lens; lia.
Qed.
Lemma l_load_values : forall l ex blk ff m lc code lc', load_values l ex blk ff m lc = Ok (code, lc') -> len code <= 7 * len l.
Proof.
  induction l as [|b l IH]; intros ex blk ff m lc code lc' H; cbn [load_values] in H.
  - inversion H; subst. lens. lia.
  - bind H. destruct x as [c1 lc1]. bind H. destruct x as [c2 lc2]. inversion H; subst.
    apply l_load_value in E. apply IH in E0. lens. lia.
Qed.
Lemma l_load_fields : forall fuel tl ex bp m lc code lc',
  load_fields fuel tl ex bp m lc = Ok (code, lc') -> len code <= N.of_nat fuel * 3 + 7 * len tl.
Proof.
  induction fuel as [|f IH]; intros tl ex bp m lc code lc' H; [discriminate|].
  rewrite Nat2N.inj_succ, N.mul_succ_l.
  destruct tl as [|b0 tl0].
  - cbn [load_fields] in H. inversion H; subst. lens. lia.
  - cbn [load_fields] in H. remember (b0 :: tl0) as tl eqn:Etl. clear Etl b0 tl0.
    set (cap := FPB - bp_n bp) in *.
    set (rl := if N.leb (N.of_nat (List.length tl)) cap then 0 else N.of_nat (List.length tl) - cap) in *.
    bind H. destruct x as [c0 lc0]. bind H. rename x into mb.
    apply IH in E.
    pose proof (len_rev (skipn (N.to_nat rl) tl)) as Hrev.
    pose proof (len_firstn_skipn (N.to_nat rl) tl).
    bind H. rename x into c2. bind H. destruct x as [c3 lc3]. inversion H; subst; clear H.
    apply l_load_values in E2.
    assert (len c2 <= 1) by (destruct bp; [inversion E1; subst; lens; lia | apply l_load_field in E1; lia]).
    assert (len (match m with Release => release_block mb | Share => [] end) <= 2) by (destruct m; unfold release_block; lens; lia).
    lens. lia.
Qed.
Lemma l_load : forall a r lc code lc', r_load a r lc = Ok (code, lc') -> len code <= 20 * (1 + len a).
Proof.
  intros a r lc code lc' H. unfold r_load in H. destruct a as [|b0 a0]; [inversion H; subst; lens; lia|].
  remember (b0 :: a0) as a. clear Heqa b0 a0.
  bind H. bind H. destruct x0 as [th lc1]. bind H. destruct x0 as [el lc2].
  apply l_load_fields in E0. apply l_load_fields in E1. rewrite Nat2N.inj_succ in *. fold (len a) in *.
  match type of H with context [if_zero_then_else TEMP ?a ?b lc2] =>
    pose proof (l_ifz TEMP a b lc2) as HI; destruct (if_zero_then_else TEMP a b lc2) as [c lc3] end.
  cbn [fst] in HI. inversion H; subst. revert HI. lens. intros HI. lia.
Qed.

Lemma rv_K_ge : 20 <= rv_K.
Proof. unfold SizeWf.rv_K. lia. Qed.

Lemma rv_exchange : forall re c code, NoDup (ids c) -> NoDup (SizeWf.new_ids_of re) ->
  code_exchange rv_backend (transpose re c) c (map fst re) = Ok code -> len code <= rv_K * (1 + len c + len re).
Proof.
  intros re c code N1 N2 H.
  assert (G := exchange_len rv_backend rv_backend_ok 1).
  cbn [rv_backend b_mov b_store_temporary b_restore_temporary] in G.
  specialize (G ltac:(intros; unfold r_mov; lens; lia) ltac:(intros; lens; lia) ltac:(intros; lens; lia) c re code N1 N2 H).
  pose proof rv_K_ge. nia.
Qed.

Theorem rv_cost_model_wf : cost_model_wf rv_backend rv_K.
Proof.
  pose proof rv_K_ge as HK. unfold cost_model_wf.
  cbn [rv_backend b_mark b_jump b_jump_label b_jump_label_fixed b_jcc2 b_jcc1
    b_load_immediate b_load_label b_add_and_jump b_arith b_mov b_print b_erase b_share_n b_store b_load].
  repeat split.
  - lia.
  - intros c. lens. lia.
  - intros t. unfold r_jump. lens. lia.
  - intros l. unfold r_jump_label. lens. lia.
  - intros l. unfold r_jump_label. lens. lia.
  - intros so a b l. lens. lia.
  - intros so a l. lens. lia.
  - intros t z. unfold r_load_immediate. lens. lia.
  - intros t l. unfold r_load_label. lens. lia.
  - intros t z. unfold r_add_and_jump. destruct (addi_fits z); lens; lia.
  - intros o a b c. destruct o; cbn [r_arith]; lens; lia.
  - intros a b. unfold r_mov. lens. lia.
  - intros nl t c. lens. lia.
  - intros t lc. rewrite l_erase_block. lia.
  - intros t n lc. rewrite l_share_block. lia.
  - intros a r lc code lc' H. apply l_store in H. unfold SizeWf.rv_K. nia.
  - intros a r lc code lc' H. apply l_load in H. nia.
  - exact rv_exchange.
Qed.

Theorem rv_translate_size : forall types ds lc code lc',
  SizeWf.sub_wf_defs ds = true ->
  translate rv_backend types ds lc = Ok (code, lc') -> len code <= rv_K * cg_bound_defs ds.
Proof. apply translate_size_wf. exact rv_cost_model_wf. Qed.

Theorem rv_compile_size : forall p lc r n lc',
  SizeWf.sub_wf_prog p = true -> rv_compile p lc = Ok (r, n, lc') -> len r <= SizeWf.rv_bound p.
Proof.
  intros p lc r n lc' HW H. unfold rv_compile in H. destruct (prog_has_print p); [discriminate|].
  unfold compile in H. unfold SizeWf.rv_bound, SizeWf.sub_wf_prog in *. destruct (pdefs p) as [|d0 ds]; [discriminate|].
  destruct (translate rv_backend (ptypes p) (d0 :: ds) lc) as [[c1 lc1]|e] eqn:E1; [|discriminate].
  cbn [rbind fst snd] in H. inversion H; subst; clear H.
  apply rv_translate_size in E1; [exact E1|exact HW].
Qed.
