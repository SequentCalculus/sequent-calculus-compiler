(* C09 on AArch64: the allocator operations of axcut2aarch64/src/memory.rs refine Model/Heap.v on the ISA model:
   `share_block_n` and `erase_block` (pointer in a register or a spill slot, null included) from the word-level
   theorems of Proof/A64MemSubst.v, `release_block`, and `acquire_block` with all three ways to refill the heap
   register: (1) next block of the reuse list, (2) first deferred block with the lazy erasure of its three children,
   (3) bump; the new block goes to a register or to a spill slot.
   Every theorem also states the exact frame: registers, spill slots, the rest of the stack (`stack_frame`), the
   heap words that are not block headers (`nonblk_same`), the output.
   Differences to x86-64 (Proof/X86Mem.v): the header test is CMP #0 on the 64-bit value (`wrap h = 0`), so headers
   must be 64-bit values (part of `bounded`); counts are updated through TEMP2 = X3. *)
From Coq Require Import List ZArith NArith String Bool Lia FMapPositive.
From SCC Require Import Base.Sexp Lang.AxSyn Sem.AxSem Model.Backend Model.A64 Sem.A64Sem Generated.Constants
     Proof.A64State Proof.A64ImmHw Proof.A64Imm Proof.A64Sel Proof.A64Exec Proof.A64MemSubst Proof.A64Mem.
From SCC Require Model.Heap Sem.X86Sem Proof.X86Mem Proof.X86MemFrame.
Import ListNotations.
Open Scope list_scope.
Open Scope Z_scope.

(* all block headers and the free pointer are 64-bit values at least k above the smallest *)
Definition bounded (k : Z) (s : astate) (f : Z) : Prop :=
  (forall x, is_blk x -> min_int + k <= hword s x <= max_int) /\ min_int + k <= f <= max_int.

Lemma is_blk_in64 x : is_blk x -> min_int + 3 <= x <= max_int. Proof. apply X86Mem.is_blk_range. Qed.
Lemma is_blk_block_ok x : is_blk x -> block_ok x. Proof. intros H. apply heap_addr_block_ok, blk_heap_addr, H. Qed.
Lemma blk0_block_ok p : p = 0 \/ is_blk p -> p = 0 \/ block_ok p.
Proof. intros [H|H]; [now left|right; now apply is_blk_block_ok]. Qed.

Lemma abs_heap_set_hdr F s s' p z h f :
  is_blk p -> (forall a, hword s' a = if a =? p then z else hword s a) ->
  reg_or0 s' HEAP = h -> reg_or0 s' FREE = f ->
  st_eqB (abs_heap F s')
    {| Heap.m := Heap.set_hdr (abs_mem s) p z; Heap.heap := h; Heap.free := f; Heap.frontier := F |}.
Proof. intros Hp W <- <-. repeat (split; [reflexivity|]). intros x Hx. now apply abs_mem_upd. Qed.
Lemma nonblk_same_set_hdr s s' p z :
  is_blk p -> (forall a, hword s' a = if a =? p then z else hword s a) -> nonblk_same s s'.
Proof. intros Hp W a Ha. rewrite W. destruct (Z.eqb_spec a p); [subst; contradiction|reflexivity]. Qed.
(* the frontier of abs_heap is a ghost *)
Lemma st_eqB_frontier F s a : st_eqB (abs_heap F s) a -> st_eqB (abs_heap (Heap.frontier a) s) a.
Proof. intros (A & B & _ & D). repeat split; assumption. Qed.
Lemma reg_or0_rget s r v : rget s r = Some v -> reg_or0 s r = v.
Proof. intros H. unfold reg_or0. now rewrite H. Qed.

Lemma share_h_abs F s s' p n f :
  (p = 0 \/ is_blk p) -> (p <> 0 -> wrap (hword s p + n) = hword s p + n) ->
  rget s' HEAP = rget s HEAP -> rget s' FREE = rget s FREE ->
  (heap s', f) = share_h p n (heap s, f) ->
  st_eqB (abs_heap F s') (Heap.share p n (abs_heap F s)) /\
  (forall a, hword s' a = if negb (p =? 0) && (a =? p) then hword s p + n else hword s a).
Proof.
  intros Hp Hw EH EF E. unfold share_h in E. cbn [fst snd] in E. unfold Heap.share.
  destruct (Z.eqb_spec p 0) as [->|Hn0]; injection E as E'; cbn [negb andb].
  - split; [|intros a; unfold hword; now rewrite E'].
    apply abs_heap_eqB; auto. intros a. unfold hword. now rewrite E'.
  - destruct Hp as [|Hb]; [contradiction|].
    assert (W : forall a, hword s' a = if a =? p then hword s p + n else hword s a).
    { intros a. unfold hword. rewrite E', hget_add by (now apply is_blk_pos). fold (hword s p). now rewrite Hw. }
    split; [|exact W]. apply abs_heap_set_hdr; [exact Hb|exact W|unfold reg_or0; now rewrite EH|unfold reg_or0; now rewrite EF].
Qed.

Lemma erase_h_abs F s s' c f f' :
  (c = 0 \/ is_blk c) -> (c <> 0 -> min_int + 1 <= hword s c <= max_int) ->
  rget s FREE = Some f -> rget s' FREE = Some f' -> rget s' HEAP = rget s HEAP ->
  (heap s', f') = erase_h c (heap s, f) ->
  st_eqB (abs_heap F s') (Heap.erase c (abs_heap F s)) /\ f' = Heap.free (Heap.erase c (abs_heap F s)) /\
  nonblk_same s s'.
Proof.
  intros Hc Hw RF RF' RH E. unfold Heap.erase.
  assert (FA : Heap.free (abs_heap F s) = f) by now apply reg_or0_rget.
  assert (HA : reg_or0 s' HEAP = reg_or0 s HEAP) by (unfold reg_or0; now rewrite RH).
  destruct (Z.eqb_spec c 0) as [->|Hn0].
  - unfold erase_h in E. cbn [Z.eqb] in E. injection E as E1 E2. split; [|split; [now rewrite FA|now apply nonblk_same_heap]].
    apply abs_heap_eqB; [intros a; unfold hword; now rewrite E1|exact RH|now rewrite RF, RF', E2].
  - destruct Hc as [|Hb]; [contradiction|]. specialize (Hw Hn0).
    rewrite erase_h_in64 in E by (cbn [fst]; fold (hword s c); lia). cbn [fst snd] in E. fold (hword s c) in E.
    destruct (Z.eqb_spec c 0) as [|_]; [contradiction|].
    change (Heap.hdr (Heap.m (abs_heap F s) c)) with (hword s c). rewrite FA.
    assert (W : forall z, heap s' = PM.add (key c) z (heap s) -> forall a, hword s' a = if a =? c then z else hword s a).
    { intros z E1 a. unfold hword. now rewrite E1, hget_add by (now apply is_blk_pos). }
    destruct (Z.eqb_spec (hword s c) 0) as [H0|Hnz]; injection E as E1 E2; specialize (W _ E1).
    + split; [|split; [exact E2|exact (nonblk_same_set_hdr s s' c f Hb W)]].
      apply abs_heap_set_hdr; [exact Hb|exact W|exact HA|apply reg_or0_rget; now rewrite RF', E2].
    + rewrite (wrap_in64 (hword s c - 1)) in W by lia.
      split; [|split; [exact E2|exact (nonblk_same_set_hdr s s' c _ Hb W)]].
      apply abs_heap_set_hdr; [exact Hb|exact W|exact HA|apply reg_or0_rget; now rewrite RF', E2].
Qed.

Section Refine.
Variable im : image.

Theorem a64_share_block_ok pos t n lc s sp p F :
  let cs := fst (a_share_block_n t n lc) in
  code_at im pos cs -> labels_at im pos cs ->
  frame_ok s sp -> operand_ok t -> lget s sp t = Some p ->
  (p = 0 \/ is_blk p) ->
  (p <> 0 -> wrap (hword s p + Z.of_N n) = hword s p + Z.of_N n) ->
  exists s', exec_to im pos s (padd pos (List.length cs)) s' /\
     st_eqB (abs_heap F s') (Heap.share p (Z.of_N n) (abs_heap F s)) /\
     sbt s s' /\ frame_ok s' sp /\
     (forall a, hword s' a = if negb (p =? 0) && (a =? p) then hword s p + Z.of_N n else hword s a).
Proof.
  intros cs HC HL FR T P Hp Hw.
  destruct (a64_share_ok im pos s sp t n lc p 0 HC HL FR T P (blk0_block_ok p Hp)) as (s' & EX & EH & SB).
  change (sbt s s') in SB.
  destruct (share_h_abs F s s' p (Z.of_N n) 0 Hp Hw ltac:(apply (proj1 SB); discriminate) ltac:(apply (proj1 SB); discriminate) EH) as [EQ W].
  exists s'. split; [exact EX|]. split; [exact EQ|]. split; [exact SB|]. split; [exact (sbt_frame s s' sp SB FR)|exact W].
Qed.

(* the conclusion of the word-level erase theorems of Proof/A64MemSubst.v, read on the abstract heap *)
Lemma erase_abs pos pos' s sp p f F :
  frame_ok s sp -> rget s FREE = Some f -> (p = 0 \/ is_blk p) -> (p <> 0 -> min_int + 1 <= hword s p <= max_int) ->
  (exists s' f', exec_to im pos s pos' s' /\ rget s' FREE = Some f' /\ (heap s', f') = erase_h p (heap s, f) /\ sbtf s s') ->
  exists s', exec_to im pos s pos' s' /\
     st_eqB (abs_heap F s') (Heap.erase p (abs_heap F s)) /\
     sbtf s s' /\ frame_ok s' sp /\ rget s' FREE = Some (Heap.free (Heap.erase p (abs_heap F s))) /\
     nonblk_same s s'.
Proof.
  intros FR Fr Hp Hw (s' & f' & EX & RF' & EH & SB).
  destruct (erase_h_abs F s s' p f f' Hp Hw Fr RF' ltac:(apply (proj1 SB); discriminate) EH) as (EQ & Ef & NB).
  exists s'. split; [exact EX|]. split; [exact EQ|]. split; [exact SB|]. split; [exact (sbtf_frame s s' sp SB FR)|].
  split; [now rewrite RF', Ef|exact NB].
Qed.

Theorem a64_erase_block_ok pos t lc s sp p f F :
  let cs := fst (a_erase_block t lc) in
  code_at im pos cs -> labels_at im pos cs ->
  frame_ok s sp -> operand_ok t -> t <> AR FREE -> t <> AR HEAP -> lget s sp t = Some p -> rget s FREE = Some f ->
  (p = 0 \/ is_blk p) ->
  (p <> 0 -> min_int + 1 <= hword s p <= max_int) ->
  exists s', exec_to im pos s (padd pos (List.length cs)) s' /\
     st_eqB (abs_heap F s') (Heap.erase p (abs_heap F s)) /\
     sbtf s s' /\ frame_ok s' sp /\ rget s' FREE = Some (Heap.free (Heap.erase p (abs_heap F s))) /\
     nonblk_same s s'.
Proof.
  intros cs HC HL FR T NF NH P Fr Hp Hw. apply (erase_abs _ _ s sp p f F FR Fr Hp Hw).
  exact (a64_erase_ok im pos s sp t lc p f HC HL FR T NF P (blk0_block_ok p Hp) Fr).
Qed.

Lemma step_LDR_blk s d b p :
  gp b -> rget s b = Some p -> is_blk p -> step im (LDR d b 0) s = Next (rset s d (Some (hword s p))).
Proof. intros G R B. rewrite (step_LDR_h im s d b 0 p G R (blk_heap_addr0 p B)). now rewrite Z.add_0_r. Qed.
Lemma step_STR_blk s a b p v :
  gp b -> rget s b = Some p -> is_blk p -> rget s a = Some v -> step im (STR a b 0) s = Next (hset s p v).
Proof. intros G R B A. rewrite (step_STR_h im s a b 0 p v G R (blk_heap_addr0 p B) A). now rewrite Z.add_0_r. Qed.

Theorem a64_release_block_ok pos r s p h F :
  code_at im pos (release_block r) -> gp r ->
  rget s r = Some p -> rget s HEAP = Some h -> is_blk p ->
  exists s', exec_to im pos s (padd pos 2) s' /\
     st_eqB (abs_heap F s') (Heap.release p (abs_heap F s)) /\
     (forall r', r' <> HEAP -> rget s' r' = rget s r') /\ rget s' HEAP = Some p /\ stack s' = stack s /\ out s' = out s /\
     (forall a, hword s' a = if a =? p then h else hword s a).
Proof.
  intros HC G R Hh Hb. unfold release_block in HC. change NEXT_ELEMENT_OFFSET with 0 in HC. change HEAP with (X 0) in *.
  set (s' := rset (hset s p h) (X 0) (Some p)).
  assert (W : forall a, hword s' a = if a =? p then h else hword s a).
  { intros a. unfold s'. rewrite hword_rset. apply hword_hset, is_blk_pos, Hb. }
  exists s'. split; [|split; [|split; [|split; [|split; [reflexivity|split; [reflexivity|exact W]]]]]].
  - nxt HC 0%nat; [apply (step_STR_blk s (X 0) r p h G R Hb Hh)|].
    nxt HC 1%nat; [apply step_MOVR|]. rg. rewrite R. apply exec_refl.
  - unfold Heap.release. rewrite (reg_or0_rget s (X 0) h Hh : Heap.heap (abs_heap F s) = h).
    apply abs_heap_set_hdr; [exact Hb|exact W|apply reg_or0_rget, rget_rset_same, I|].
    unfold reg_or0, s'. now rg.
  - intros r' Hr. unfold s'. now rg.
  - apply rget_rset_same. exact I.
Qed.

(* one iteration of erase_fields in acquire_block: load a child, erase it *)
Lemma a64_erase_field_ok pos off lc s sp h2 f F :
  let cs := LDR TEMP HEAP off :: fst (a_erase_block (AR TEMP) lc) in
  code_at im pos cs -> labels_at im pos cs ->
  (off = 16 \/ off = 32 \/ off = 48) ->
  frame_ok s sp -> rget s HEAP = Some h2 -> is_blk h2 -> rget s FREE = Some f ->
  let c := hword s (h2 + off) in
  (c = 0 \/ is_blk c) ->
  (c <> 0 -> min_int + 1 <= hword s c <= max_int) ->
  exists s', exec_to im pos s (padd pos (List.length cs)) s' /\
    st_eqB (abs_heap F s') (Heap.erase c (abs_heap F s)) /\
    sbtf s s' /\ frame_ok s' sp /\
    rget s' FREE = Some (Heap.free (Heap.erase c (abs_heap F s))) /\ nonblk_same s s'.
Proof.
  intros cs HC HL Hoff FR Hh Hb Hf c Hc Hw. apply (erase_abs _ _ s sp c f F FR Hf Hc Hw).
  apply (a64_erase_loaded im pos _ s lc c f HC HL); [|now apply blk0_block_ok|exact Hf].
  apply (step_LDR_h im s TEMP HEAP off h2 I Hh). apply X86Mem.is_blk_addr; [exact Hb|right; exact Hoff].
Qed.

Definition acq_pre (t : atemp) : list acode :=
  match t with AR r => [MOVR r HEAP] | AS p => [MOVR TEMP HEAP; STR HEAP SP (stack_offset p)] end.
Definition acq_init (t : atemp) : list acode :=
  match t with AR r => [STR XZR r REFERENCE_COUNT_OFFSET] | AS _ => [STR XZR TEMP REFERENCE_COUNT_OFFSET] end.
Definition ef_code (off : Z) (lc : N) : list acode := LDR TEMP HEAP off :: fst (a_erase_block (AR TEMP) lc).

(* erase_fields, one child after the other *)
Fixpoint efs_code (offs : list Z) (lc : N) : list acode * N :=
  match offs with
  | [] => ([], lc)
  | o :: r => let rest := efs_code r (snd (a_erase_block (AR TEMP) lc)) in (ef_code o lc ++ fst rest, snd rest)
  end.
Lemma erase_fields_shape lc : erase_fields HEAP lc = efs_code [16; 32; 48] lc.
Proof.
  unfold erase_fields. change (nseq 0 FIELDS_PER_BLOCK) with [0; 1; 2]%N. cbn [fold_left efs_code]. unfold ef_code.
  change (field_offset Fst 0) with 16. change (field_offset Fst 1) with 32. change (field_offset Fst 2) with 48.
  destruct (a_erase_block (AR TEMP) lc) as [c0 l1]. cbn [fst snd].
  destruct (a_erase_block (AR TEMP) l1) as [c1 l2]. cbn [fst snd].
  destruct (a_erase_block (AR TEMP) l2) as [c2 l3]. cbn [fst snd app]. now rewrite app_nil_r, <- !app_assoc.
Qed.

Lemma acquire_block_shape t lc :
  fst (acquire_block t lc) =
    (acq_pre t ++ [LDR HEAP HEAP NEXT_ELEMENT_OFFSET]) ++
    fst (if_zero_then_else HEAP
           ([MOVR HEAP FREE; LDR FREE FREE NEXT_ELEMENT_OFFSET] ++
            fst (if_zero_then_else FREE [ADDI FREE HEAP (field_offset Fst FIELDS_PER_BLOCK)]
                   ([STR XZR HEAP NEXT_ELEMENT_OFFSET] ++ fst (erase_fields HEAP lc)) (snd (erase_fields HEAP lc))))
           (acq_init t) (snd (erase_fields HEAP lc) + 2)).
Proof. unfold acquire_block. destruct (erase_fields HEAP lc). destruct t; reflexivity. Qed.

(* bounds survive an erase with one unit less of room *)
Lemma bounded_erase F k s0 f0 s1 c :
  bounded (k + 1) s0 f0 -> 0 <= k <= 2 -> Heap.free (abs_heap F s0) = f0 -> (c = 0 \/ is_blk c) ->
  st_eqB (abs_heap F s1) (Heap.erase c (abs_heap F s0)) -> bounded k s1 (Heap.free (Heap.erase c (abs_heap F s0))).
Proof.
  intros [B1 B2] Hk0 Hf0 Hc (_ & _ & _ & E). split.
  - intros x Hx. change (hword s1 x) with (Heap.hdr (Heap.m (abs_heap F s1) x)). rewrite (E x Hx).
    specialize (B1 x Hx). change (hword s0 x) with (Heap.hdr (Heap.m (abs_heap F s0) x)) in B1.
    destruct (X86Mem.erase_hdr_cases (abs_heap F s0) c x) as [->|[->| ->]]; rewrite ?Hf0; lia.
  - destruct (X86Mem.erase_free_cases (abs_heap F s0) c) as [->| ->]; [rewrite Hf0; lia|].
    destruct Hc as [->|Hcb]; [unfold min_int, max_int, two63; lia|]. pose proof (is_blk_in64 c Hcb). lia.
Qed.

(* the erasures of the children at the offsets offs of the block the HEAP register points to: every erasure
   may push a block on the deferred list, so the headers need one unit of room per child *)
Lemma a64_efs_ok sp h2 F : is_blk h2 -> forall offs pos lc s f,
  code_at im pos (fst (efs_code offs lc)) -> labels_at im pos (fst (efs_code offs lc)) ->
  frame_ok s sp -> rget s HEAP = Some h2 -> rget s FREE = Some f ->
  Forall (fun off => (off = 16 \/ off = 32 \/ off = 48) /\ (hword s (h2 + off) = 0 \/ is_blk (hword s (h2 + off)))) offs ->
  (List.length offs <= 3)%nat -> bounded (Z.of_nat (List.length offs)) s f ->
  exists s', exec_to im pos s (padd pos (List.length (fst (efs_code offs lc)))) s' /\
    st_eqB (abs_heap F s')
      (fold_left (fun a c => Heap.erase c a) (map (fun off => hword s (h2 + off)) offs) (abs_heap F s)) /\
    sbtf s s' /\ frame_ok s' sp /\ nonblk_same s s'.
Proof.
  intros Hb. induction offs as [|off r IH]; intros pos lc s f HC HL FR Hh Hf Hk Hlen BD.
  - exists s. split; [apply exec_refl|]. split; [apply X86Mem.st_eqB_refl|]. split; [repeat split|].
    split; [exact FR|apply nonblk_same_refl].
  - cbn [efs_code fst List.length map fold_left] in *. inversion Hk as [|? ? (Ho & Hc) Hk']; subst.
    apply code_at_app2 in HC as [HC1 HC2]. apply labels_at_app2 in HL as [HL1 HL2].
    set (c := hword s (h2 + off)) in *.
    assert (FA : Heap.free (abs_heap F s) = f) by now apply reg_or0_rget.
    destruct (a64_erase_field_ok pos off lc s sp h2 f F HC1 HL1 Ho FR Hh Hb Hf Hc) as (s1 & X1 & Q1 & SB1 & FR1 & RF1 & N1).
    { intros Hn. fold c in Hn |- *. destruct Hc as [|Hcb]; [contradiction|]. destruct BD as [B _]. specialize (B _ Hcb). lia. }
    fold c in Q1, RF1.
    assert (BD1 : bounded (Z.of_nat (List.length r)) s1 (Heap.free (Heap.erase c (abs_heap F s)))).
    { apply (bounded_erase F _ s f); [|lia|exact FA|exact Hc|exact Q1].
      replace (Z.of_nat (List.length r) + 1) with (Z.of_nat (S (List.length r))) by lia. exact BD. }
    assert (Hh1 : rget s1 HEAP = Some h2) by (destruct SB1 as (R & _); rewrite R by discriminate; exact Hh).
    assert (W1 : forall o, o = 16 \/ o = 32 \/ o = 48 -> hword s1 (h2 + o) = hword s (h2 + o)).
    { intros o Hoo. apply N1, X86MemFrame.not_blk_off; [exact Hb|lia]. }
    destruct (IH _ _ s1 _ HC2 HL2 FR1 Hh1 RF1) as (s2 & X2 & Q2 & SB2 & FR2 & N2); [|lia|exact BD1|].
    { eapply Forall_impl; [|exact Hk']. intros o (Hoo & Hco). rewrite (W1 o Hoo). auto. }
    exists s2. split; [rewrite app_length, padd_add; eapply exec_to_trans; eassumption|].
    split; [|split; [eapply sbtf_trans; eassumption|split; [exact FR2|eapply nonblk_same_trans; eassumption]]].
    eapply X86Mem.st_eqB_trans; [exact Q2|].
    rewrite (map_ext_in _ (fun o => hword s (h2 + o))).
    + apply X86MemFrame.erase_list_st_eqB; [exact Q1|]. apply Forall_map. eapply Forall_impl; [|exact Hk']. intros o Ho'. apply Ho'.
    + intros o Hin. apply W1. rewrite Forall_forall in Hk'. apply (Hk' o Hin).
Qed.

(* ri holds the acquired block (the target register, or TEMP when the target is a spill slot); it is the
   register through which case (1) initialises the header of the acquired block.
   SEEDED DEFECT 1 (acquire_block into a spill slot writes `STR XZR, [HEAP]` instead of `STR XZR, [TEMP]`):
   with ri := HEAP, `ri <> HEAP` fails and `rget s ri = Some rv` no longer holds after `LDR HEAP, [HEAP]` - the
   proof of case (1) below needs the store to go to rv (`step_STR_blk` through ri), and the conclusion
   `st_eqB ... (Heap.acquire ...)` demands header(rv) = 0 while the defective code leaves the free-list link there
   and zeroes the header of the NEXT reusable block instead.  So `a64_acquire_block_spill_ok` does not prove for
   that variant. *)
Lemma a64_acquire_tail pos ri lc lc1 lc2 s sp rv h2 F :
  let ef := fst (erase_fields HEAP lc) in
  let inner := fst (if_zero_then_else FREE [ADDI FREE HEAP (field_offset Fst FIELDS_PER_BLOCK)]
                      ([STR XZR HEAP NEXT_ELEMENT_OFFSET] ++ ef) lc1) in
  let cs := [LDR HEAP HEAP NEXT_ELEMENT_OFFSET] ++
            fst (if_zero_then_else HEAP ([MOVR HEAP FREE; LDR FREE FREE NEXT_ELEMENT_OFFSET] ++ inner)
                   [STR XZR ri REFERENCE_COUNT_OFFSET] lc2) in
  code_at im pos cs -> labels_at im pos cs ->
  frame_ok s sp -> gp ri -> ri <> HEAP ->
  rget s ri = Some rv -> rget s HEAP = Some rv -> is_blk rv -> rget s FREE = Some h2 ->
  min_int <= hword s rv <= max_int ->
  (hword s rv = 0 -> is_blk h2) ->
  (hword s rv = 0 -> hword s h2 <> 0 ->
     (forall off, off = 16 \/ off = 32 \/ off = 48 -> hword s (h2 + off) = 0 \/ is_blk (hword s (h2 + off))) /\
     bounded 3 s (hword s h2)) ->
  exists s', exec_to im pos s (padd pos (List.length cs)) s' /\
    st_eqB (abs_heap (Heap.frontier (snd (Heap.acquire (abs_heap F s)))) s') (snd (Heap.acquire (abs_heap F s))) /\
    fst (Heap.acquire (abs_heap F s)) = rv /\
    (forall r', r' <> TEMP -> r' <> TEMP2 -> r' <> HEAP -> r' <> FREE -> rget s' r' = rget s r') /\
    stack s' = stack s /\ out s' = out s /\ frame_ok s' sp /\ nonblk_same s s'.
Proof.
  intros ef inner cs HC HL FR G NH Ri Hh Hb Hf I64 Hb2 Hch. subst cs.
  change NEXT_ELEMENT_OFFSET with 0 in *. change REFERENCE_COUNT_OFFSET with 0 in *.
  apply code_at_app2 in HC as [HC0 HC]. apply labels_at_app2 in HL as [_ HL]. cbn [List.length padd] in HC, HL.
  set (TB := [MOVR HEAP FREE; LDR FREE FREE 0] ++ inner) in *. set (EB := [STR XZR ri 0]) in *.
  destruct (ite_frame im (Pos.succ pos) HEAP TB EB lc2 HC HL) as (lt & le & _ & _ & CE & _ & _ & _ & _ & CT & LT & _ & _).
  set (s1 := rset s HEAP (Some (hword s rv))).
  assert (X0 : exec_to im pos s (Pos.succ pos) s1).
  { nxt HC0 0%nat; [apply (step_LDR_blk s HEAP HEAP rv I Hh Hb)|apply exec_refl]. }
  assert (R1 : rget s1 HEAP = Some (hword s rv)) by (apply rget_rset_same; exact I).
  set (s1f := set_flags s1 (Some (cmp_flags (hword s rv) 0))) in *.
  change (padd pos (List.length ([LDR HEAP HEAP 0] ++ ?c))) with (padd (Pos.succ pos) (List.length c)).
  unfold Heap.acquire.
  rewrite (reg_or0_rget s HEAP rv Hh : Heap.heap (abs_heap F s) = rv), (reg_or0_rget s FREE h2 Hf : Heap.free (abs_heap F s) = h2).
  change (Heap.hdr (Heap.m (abs_heap F s) rv)) with (hword s rv). change (Heap.hdr (Heap.m (abs_heap F s) h2)) with (hword s h2).
  destruct (Z.eqb_spec (hword s rv) 0) as [H0|Hn0]; cbn [negb].
  2:{ (* (1) the reuse list has a next block *)
    cbn [fst snd Heap.frontier]. set (s' := hset s1f rv 0).
    assert (W : forall a, hword s' a = if a =? rv then 0 else hword s a) by (intros a; apply (hword_hset s1f), is_blk_pos, Hb).
    exists s'. split; [|split; [|split; [reflexivity|split; [|split; [reflexivity|split; [reflexivity|split]]]]]].
    - eapply exec_to_trans; [exact X0|]. eapply ite_nz; [exact HC|exact HL|exact R1|rewrite wrap_in64 by exact I64; now apply Z.eqb_neq|].
      nxt CE 0%nat; [|apply exec_refl].
      apply (step_STR_blk s1f XZR ri rv 0 G); [unfold s1f, s1; now rg|exact Hb|reflexivity].
    - apply abs_heap_set_hdr; [exact Hb|exact W|exact (reg_or0_rget s' HEAP _ R1)|apply reg_or0_rget].
      unfold s', s1f, s1. now rg.
    - intros r' _ _ N3 _. unfold s', s1f, s1. now rg.
    - apply frame_ok_hset, frame_ok_set_flags, frame_ok_rset; [discriminate|exact FR].
    - exact (nonblk_same_set_hdr s s' rv 0 Hb W). }
  (* the reuse list is exhausted: look at the deferred list *)
  specialize (Hb2 H0).
  apply code_at_app2 in CT as [CT0 CI]. apply labels_at_app2 in LT as [_ LI]. cbn [List.length] in CI, LI.
  set (pT := padd (Pos.succ pos) (4 + List.length EB)) in *.
  set (s2 := rset s1f HEAP (Some h2)).
  set (s3 := rset s2 FREE (Some (hword s h2))).
  assert (X3 : exec_to im pT s1f (padd pT 2) s3).
  { nxt CT0 0%nat; [apply step_MOVR|].
    replace (rget s1f FREE) with (Some h2) by (unfold s1f, s1; now rg).
    nxt CT0 1%nat; [|apply exec_refl].
    apply (step_LDR_blk s2 FREE FREE h2 I); [unfold s2, s1f, s1; now rg|exact Hb2]. }
  assert (R3H : rget s3 HEAP = Some h2) by (unfold s3, s2; rg; apply rget_rset_same; exact I).
  assert (R3F : rget s3 FREE = Some (hword s h2)) by (apply rget_rset_same; exact I).
  assert (FR3 : frame_ok s3 sp).
  { unfold s3, s2, s1f, s1. repeat first [apply frame_ok_rset; [discriminate|] | apply frame_ok_set_flags]. exact FR. }
  assert (O3 : forall r', r' <> HEAP -> r' <> FREE -> rget s3 r' = rget s r') by (intros r' N1 N2; unfold s3, s2, s1f, s1; now rg).
  set (TBF := [ADDI FREE HEAP (field_offset Fst FIELDS_PER_BLOCK)]) in *. set (EBF := [STR XZR HEAP 0] ++ ef) in *.
  destruct (ite_frame im (padd pT 2) FREE TBF EBF lc1 CI LI) as (lt' & le' & _ & _ & CE' & LE' & _ & _ & _ & CT' & _ & _ & _).
  (* s3f, and s4 in case (2), have the registers of s3 by computation *)
  set (s3f := set_flags s3 (Some (cmp_flags (hword s h2) 0))) in *.
  assert (TOP : forall s', exec_to im (padd pT 2) s3 (padd (padd pT 2) (List.length inner)) s' ->
            exec_to im pos s (padd (Pos.succ pos) (List.length (fst (if_zero_then_else HEAP TB EB lc2)))) s').
  { intros s' X. eapply exec_to_trans; [exact X0|]. eapply ite_zero; [exact HC|exact HL|exact R1|rewrite H0; reflexivity|].
    fold pT. fold s1f. eapply exec_to_trans; [exact X3|].
    replace (padd (Pos.succ pos) (4 + List.length EB + List.length TB)) with (padd (padd pT 2) (List.length inner)); [exact X|].
    unfold pT, TB. padd_eq. }
  destruct (Z.eqb_spec (hword s h2) 0) as [F0|Fn0].
  - (* (3) nothing deferred: bump *)
    cbn [fst snd Heap.frontier]. unfold Heap.BLOCK.
    set (s4 := rset s3f FREE (Some (wrap (h2 + field_offset Fst FIELDS_PER_BLOCK)))).
    exists s4. split; [|split; [|split; [reflexivity|split; [|split; [reflexivity|split; [reflexivity|split]]]]]].
    + apply TOP. eapply ite_zero; [exact CI|exact LI|exact R3F|rewrite F0; reflexivity|].
      fold s3f. nxt CT' 0%nat; [|apply exec_refl].
      apply step_ADDI_reg. exact R3H.
    + assert (WR : wrap (h2 + field_offset Fst FIELDS_PER_BLOCK) = h2 + 64).
      { rewrite fo_F3. apply wrap_in64. pose proof (is_blk_in64 h2 Hb2). destruct Hb2 as (k & Hk & E & L). unfb. unfold min_int, max_int, two63 in *. lia. }
      split; [|split; [|split; reflexivity]]; apply reg_or0_rget.
      * unfold s4, s3f. rg. exact R3H.
      * unfold s4. rewrite rget_rset_same by exact I. now rewrite WR.
    + intros r' _ _ N3 N4. unfold s4, s3f. rg. now apply O3.
    + apply frame_ok_rset; [discriminate|]. apply frame_ok_set_flags. exact FR3.
    + intros a _. reflexivity.
  - (* (2) recycle the first deferred block, erase its children *)
    destruct (Hch H0 Fn0) as [Hk BD].
    apply code_at_app2 in CE' as [CS CEF]. apply labels_at_app2 in LE' as [_ LEF]. cbn [List.length] in CEF, LEF.
    set (s4 := hset s3f h2 0).
    assert (W4 : forall a, hword s4 a = if a =? h2 then 0 else hword s a) by (intros a; apply (hword_hset s3f), is_blk_pos, Hb2).
    assert (FR4 : frame_ok s4 sp) by (apply frame_ok_hset, frame_ok_set_flags, FR3).
    assert (X4 : exec_to im (padd (padd pT 2) 2) s3f (padd (padd (padd pT 2) 2) 1) s4).
    { nxt CS 0%nat; [|apply exec_refl].
      apply (step_STR_blk s3f XZR HEAP h2 0 I); [exact R3H|exact Hb2|reflexivity]. }
    assert (NBo : forall off, off = 16 \/ off = 32 \/ off = 48 -> hword s4 (h2 + off) = hword s (h2 + off)).
    { intros off Ho. rewrite W4. destruct (Z.eqb_spec (h2 + off) h2); [lia|reflexivity]. }
    unfold ef in CEF, LEF. rewrite erase_fields_shape in CEF, LEF.
    destruct (a64_efs_ok sp h2 F Hb2 [16; 32; 48] _ lc s4 (hword s h2) CEF LEF FR4 R3H R3F) as (s5 & X5 & Q5 & SB5 & FR5 & N5).
    { repeat (apply Forall_cons; [split; [|rewrite NBo by auto; apply Hk]; auto|]). apply Forall_nil. }
    { cbn [List.length]. lia. }
    { change (bounded 3 s4 (hword s h2)). destruct BD as [B1 B2]. split; [|exact B2]. intros x Hx. rewrite W4. destruct (x =? h2); [unfold min_int, max_int, two63; lia|now apply B1]. }
    rewrite <- erase_fields_shape in X5. fold ef in X5. cbn [map] in Q5. rewrite !NBo in Q5 by auto.
    cbn [fst snd]. change (Heap.ps (Heap.m (abs_heap F s) h2)) with [hword s (h2 + 16); hword s (h2 + 32); hword s (h2 + 48)].
    destruct SB5 as (R5 & S5 & O5).
    exists s5. split; [|split; [|split; [reflexivity|split; [|split; [exact S5|split; [exact O5|split; [exact FR5|]]]]]]].
    + apply TOP. eapply ite_nz; [exact CI|exact LI|exact R3F|rewrite wrap_in64 by (destruct BD as [_ B2]; lia); now apply Z.eqb_neq|].
      fold s3f. eapply exec_to_trans; [exact X4|].
      replace (padd (padd pT 2) (2 + List.length EBF)) with (padd (padd (padd (padd pT 2) 2) 1) (List.length ef)) by (unfold EBF; padd_eq).
      exact X5.
    + apply st_eqB_frontier with F. eapply X86Mem.st_eqB_trans; [exact Q5|]. apply X86MemFrame.erase_list_st_eqB.
      * apply abs_heap_set_hdr; [exact Hb2|exact W4|exact (reg_or0_rget s4 HEAP _ R3H)|exact (reg_or0_rget s4 FREE _ R3F)].
      * repeat (apply Forall_cons; [apply Hk; auto|]). apply Forall_nil.
    + intros r' N1 N2 N3 N4. rewrite R5 by assumption. exact (O3 r' N3 N4).
    + eapply nonblk_same_trans; [exact (nonblk_same_set_hdr s s4 h2 0 Hb2 W4)|exact N5].
Qed.

Theorem a64_acquire_block_reg_ok pos r lc s sp rv h2 F :
  let cs := fst (acquire_block (AR r) lc) in
  code_at im pos cs -> labels_at im pos cs ->
  frame_ok s sp -> gp r -> r <> HEAP -> r <> FREE -> r <> TEMP -> r <> TEMP2 ->
  rget s HEAP = Some rv -> is_blk rv -> rget s FREE = Some h2 ->
  min_int <= hword s rv <= max_int ->
  (hword s rv = 0 -> is_blk h2) ->
  (hword s rv = 0 -> hword s h2 <> 0 ->
     (forall off, off = 16 \/ off = 32 \/ off = 48 -> hword s (h2 + off) = 0 \/ is_blk (hword s (h2 + off))) /\
     bounded 3 s (hword s h2)) ->
  exists s', exec_to im pos s (padd pos (List.length cs)) s' /\
    st_eqB (abs_heap (Heap.frontier (snd (Heap.acquire (abs_heap F s)))) s') (snd (Heap.acquire (abs_heap F s))) /\
    rget s' r = Some rv /\ fst (Heap.acquire (abs_heap F s)) = rv /\
    (forall r', r' <> r -> r' <> TEMP -> r' <> TEMP2 -> r' <> HEAP -> r' <> FREE -> rget s' r' = rget s r') /\
    stack s' = stack s /\ out s' = out s /\ frame_ok s' sp /\ nonblk_same s s'.
Proof.
  intros cs HC HL FR G NH NF NT NT2 Hh Hb Hf I64 Hb2 Hch. subst cs.
  rewrite acquire_block_shape in *. cbn [acq_pre acq_init] in *. rewrite <- app_assoc in HC, HL |- *.
  apply code_at_app2 in HC as [HC0 HC]. apply labels_at_app2 in HL as [_ HL]. cbn [List.length] in HC, HL.
  destruct r as [n| |]; try contradiction.
  (* s0 has the heap, the stack and the output of s by computation *)
  set (s0 := rset s (X n) (Some rv)).
  assert (E0 : abs_heap F s0 = abs_heap F s) by (apply abs_heap_ext; unfold s0; [reflexivity|now rg|now rg]).
  destruct (a64_acquire_tail (padd pos 1) (X n) lc _ _ s0 sp rv h2 F HC HL FR I NH) as (s' & EX & EQ & Ef & Oth & Stk & Out & FR' & NB); auto.
  { apply rget_rset_same. exact I. }
  { unfold s0. now rg. }
  { unfold s0. now rg. }
  rewrite E0 in EQ, Ef.
  exists s'. split; [|split; [exact EQ|split; [|split; [exact Ef|split; [|auto]]]]].
  - nxt HC0 0%nat; [apply step_MOVR|]. rewrite Hh, app_length, padd_add. exact EX.
  - rewrite Oth by assumption. apply rget_rset_same. exact I.
  - intros r' N1 N2 N3 N4 N5. rewrite Oth by assumption. apply rget_rset_other, not_eq_sym, N1.
Qed.

Theorem a64_acquire_block_spill_ok pos q lc s sp rv h2 F :
  let cs := fst (acquire_block (AS q) lc) in
  code_at im pos cs -> labels_at im pos cs ->
  frame_ok s sp -> slot_ok q ->
  rget s HEAP = Some rv -> is_blk rv -> rget s FREE = Some h2 ->
  min_int <= hword s rv <= max_int ->
  (hword s rv = 0 -> is_blk h2) ->
  (hword s rv = 0 -> hword s h2 <> 0 ->
     (forall off, off = 16 \/ off = 32 \/ off = 48 -> hword s (h2 + off) = 0 \/ is_blk (hword s (h2 + off))) /\
     bounded 3 s (hword s h2)) ->
  exists s', exec_to im pos s (padd pos (List.length cs)) s' /\
    st_eqB (abs_heap (Heap.frontier (snd (Heap.acquire (abs_heap F s)))) s') (snd (Heap.acquire (abs_heap F s))) /\
    sget s' sp q = Some rv /\ fst (Heap.acquire (abs_heap F s)) = rv /\
    (forall r', r' <> TEMP -> r' <> TEMP2 -> r' <> HEAP -> r' <> FREE -> rget s' r' = rget s r') /\
    (forall q', slot_ok q' -> q' <> q -> sget s' sp q' = sget s sp q') /\ out s' = out s /\ frame_ok s' sp /\
    nonblk_same s s' /\ stack_frame s s' sp.
Proof.
  intros cs HC HL FR Q Hh Hb Hf I64 Hb2 Hch. subst cs.
  rewrite acquire_block_shape in *. cbn [acq_pre acq_init] in *. rewrite <- app_assoc in HC, HL |- *.
  apply code_at_app2 in HC as [HC0 HC]. apply labels_at_app2 in HL as [_ HL]. cbn [List.length] in HC, HL.
  set (s0 := rset s TEMP (Some rv)).
  assert (F0 : frame_ok s0 sp) by (apply frame_ok_rset; [discriminate|exact FR]).
  (* s1 has the heap and the output of s by computation *)
  set (s1 := sset s0 sp q (Some rv)).
  assert (RH : rget s0 HEAP = Some rv) by (unfold s0; now rg).
  assert (E1 : abs_heap F s1 = abs_heap F s) by (apply abs_heap_ext; unfold s1, s0; [reflexivity|now rg|now rg]).
  destruct (a64_acquire_tail (padd pos 2) TEMP lc _ _ s1 sp rv h2 F HC HL (frame_ok_sset s0 sp q _ F0) I ltac:(discriminate))
    as (s' & EX & EQ & Ef & Oth & Stk & Out & FR' & NB); auto.
  { unfold s1, s0. rg. apply rget_rset_same. exact I. }
  { unfold s1, s0. now rg. }
  rewrite E1 in EQ, Ef.
  exists s'. split; [|split; [exact EQ|split; [|split; [exact Ef|split; [|split; [|split; [exact Out|split; [exact FR'|split; [exact NB|]]]]]]]]].
  - nxt HC0 0%nat; [apply step_MOVR|]. rewrite Hh. fold s0.
    nxt HC0 1%nat; [apply (step_STR_slot im s0 sp F0); exact Q|]. rewrite RH. fold s1.
    rewrite app_length, padd_add. exact EX.
  - unfold sget. rewrite Stk. apply sget_sset_same.
  - intros r' N1 N2 N3 N4. rewrite Oth by assumption. unfold s1. rewrite rget_sset. apply rget_rset_other, not_eq_sym, N1.
  - intros q' Q' Nq. unfold sget at 1. rewrite Stk. fold (sget s1 sp q'). unfold s1. rewrite sget_sset_other by (auto; apply FR).
    apply sget_rset.
  - intros k Hk. rewrite Stk. apply (stack_frame_sset s0 sp q (Some rv) Q k Hk).
Qed.

Lemma a64_acquire_block_tpos_ok pos k lc s sp rv h2 F :
  let cs := fst (acquire_block (tpos k) lc) in
  (k < MAXPOS)%N ->
  code_at im pos cs -> labels_at im pos cs -> frame_ok s sp ->
  rget s HEAP = Some rv -> is_blk rv -> rget s FREE = Some h2 ->
  min_int <= hword s rv <= max_int ->
  (hword s rv = 0 -> is_blk h2) ->
  (hword s rv = 0 -> hword s h2 <> 0 ->
     (forall off, off = 16 \/ off = 32 \/ off = 48 -> hword s (h2 + off) = 0 \/ is_blk (hword s (h2 + off))) /\
     bounded 3 s (hword s h2)) ->
  exists s', exec_to im pos s (padd pos (List.length cs)) s' /\
    st_eqB (abs_heap (Heap.frontier (snd (Heap.acquire (abs_heap F s)))) s') (snd (Heap.acquire (abs_heap F s))) /\
    lget s' sp (tpos k) = Some rv /\ fst (Heap.acquire (abs_heap F s)) = rv /\
    (forall l, loc_ok l -> l <> tpos k -> l <> AR TEMP -> l <> AR TEMP2 -> l <> AR HEAP -> l <> AR FREE -> lget s' sp l = lget s sp l) /\
    out s' = out s /\ frame_ok s' sp /\ nonblk_same s s' /\ stack_frame s s' sp.
Proof.
  intros cs Hk HC HL FR R Hb Rf I64 Hb2 Hch. unfold cs in *. clear cs.
  pose proof (tpos_loc_ok k Hk) as LK. destruct (tpos_not_reserved k) as (NH & NF & NT & NT2 & _).
  destruct (tpos k) as [r|q] eqn:Et; cbn [loc_ok] in LK.
  - destruct (a64_acquire_block_reg_ok pos r lc s sp rv h2 F HC HL FR) as (s' & ST & EQ & Rr & Ef & Oth & Stk & Out & FR' & NB); auto; try congruence.
    exists s'. split; [exact ST|]. split; [exact EQ|]. split; [exact Rr|]. split; [exact Ef|]. split; [|auto using stack_frame_eq].
    intros l Ll N1 N2 N3 N4 N5. destruct l as [r'|q']; cbn [lget].
    + apply Oth; congruence.
    + unfold sget. now rewrite Stk.
  - destruct (a64_acquire_block_spill_ok pos q lc s sp rv h2 F HC HL FR LK R Hb Rf I64 Hb2 Hch) as (s' & ST & EQ & Rr & Ef & Oth & Slots & Out & FR' & NB & SF).
    exists s'. split; [exact ST|]. split; [exact EQ|]. split; [exact Rr|]. split; [exact Ef|]. split; [|auto].
    intros l Ll N1 N2 N3 N4 N5. destruct l as [r'|q']; cbn [lget loc_ok] in *.
    + apply Oth; congruence.
    + apply Slots; auto. congruence.
Qed.
End Refine.
