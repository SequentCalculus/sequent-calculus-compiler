(* C15, scopes.
   (1) Model side: the context in which the checker checks the body of a case / new clause is EXACTLY
       the context of the case / new term followed by that clause's own binders
       ([check_clauses_context_exact], [case_clause_context_exact], [new_clause_context_exact]).
       The binders of a sibling clause are not in it, in whatever order the xtors are declared.  (A checker
       that kept one growing context for all clauses - the seeded change `scope leak between clauses` -
       would make these statements, and soundness, unprovable.)
   (2) Specification and checker: a name used where it is NOT in scope is rejected - whatever is bound
       elsewhere in the definition (a sibling clause's binder, a let variable outside its body, a label
       outside its body, a clause binder in the scrutinee or after the case, ...): [occ_sc s sc t] says that
       s occurs in t and sc are exactly the names bound on the path from the root of t to s. *)
From Coq Require Import List ZArith String Bool Permutation Lia.
From SCC Require Import Base.Sexp Lang.SynUtil Lang.FunSyn Model.Check Sem.FunTyping Sem.FunNames
  Proof.FunInd Proof.FunEq Proof.CheckAnn Proof.TypingReject Proof.CheckMono Proof.CheckArity.
Import ListNotations.
Open Scope list_scope.

Definition clause_names (c : fclause) : fnamectx := match c with FClause _ _ ns _ _ => ns end.
Definition clause_ctx (c : fclause) : fctx := match c with FClause _ _ _ cx _ => cx end.

Lemma zip_names_vars : forall ns sg, List.length ns = List.length sg -> map fbvar (zip_names ns sg) = ns.
Proof.
  induction ns as [|n r IH]; intros [|b br] H; simpl in *; try discriminate; [reflexivity|].
  rewrite IH by lia. reflexivity.
Qed.

(* every emitted clause is one of the given clauses, its annotated context binds exactly its own
   binder names, and its body is the result of its checker run in  ctx ++ (that context) *)
Definition clause_checked_in (ctx : fctx) (pcls : list pclause) (c' : fclause) : Prop :=
  exists pc st0 st1 bty,
    In pc pcls /\ pc_xtor pc = clause_xtor c' /\ pc_names pc = clause_names c'
    /\ map fbvar (clause_ctx c') = clause_names c'
    /\ pc_chk pc st0 (ctx ++ clause_ctx c') bty = COk (clause_body c', st1).

Theorem check_clauses_context_exact : forall is_case sfx T xtors pcls st ctx cls' leftover st',
  check_clauses is_case sfx T xtors pcls st ctx = COk (cls', leftover, st') ->
  Forall (clause_checked_in ctx pcls) cls'.
Proof.
  intros is_case sfx T xtors. induction xtors as [|x xr IH]; intros pcls st ctx cls' leftover st' H.
  - simpl in H. inversion H; subst. constructor.
  - apply run_clauses_cons in H.
    destruct H as (cl & pcls' & sg & bty & body' & st1 & rest & _ & Hperm & _ & _ & El & Hbody & Hrest & ->).
    constructor.
    + exists cl, st, st1, bty. simpl. splits; auto.
      * eapply Permutation_in; [exact Hperm|left; reflexivity].
      * apply zip_names_vars. exact El.
    + eapply Forall_impl; [|eapply IH; exact Hrest].
      intros c' [pc [s0 [s1 [b [Hin R]]]]]. exists pc, s0, s1, b. split; [|exact R].
      eapply Permutation_in; [exact Hperm|right; exact Hin].
Qed.

Lemma prep_clauses_in_inv : forall chk cls pc, In pc (prep_clauses chk cls) ->
  In (clause_of pc) cls /\ pc_chk pc = chk (pc_body pc).
Proof.
  intros chk cls pc. induction cls as [|[p x ns c b] r IH]; simpl; intros H; [destruct H|].
  destruct H as [<-|H]; [split; [left; reflexivity|reflexivity]|]. destruct (IH H). auto.
Qed.

(* at a case / new term: every clause body of the output was checked in the term's context followed by
   the clause's own binders *)
Definition body_checked_in (eager : bool) (ctx : fctx) (cls : list fclause) (c' : fclause) : Prop :=
  exists c st0 st1 bty,
    In c cls /\ clause_xtor c = clause_xtor c' /\ clause_names c = clause_names c'
    /\ map fbvar (clause_ctx c') = clause_names c'
    /\ check_term_gen eager (clause_body c) st0 (ctx ++ clause_ctx c') bty = COk (clause_body c', st1).

Lemma clause_checked_body : forall eager ctx cls c',
  clause_checked_in ctx (prep_clauses (check_term_gen eager) cls) c' -> body_checked_in eager ctx cls c'.
Proof.
  intros eager ctx cls c' [pc [s0 [s1 [b [Hin [Hx [Hn [Hv Hc]]]]]]]].
  destruct (prep_clauses_in_inv _ _ _ Hin) as [Hcin Hchk]. rewrite Hchk in Hc.
  exists (clause_of pc), s0, s1, b. unfold clause_of. simpl. auto.
Qed.

Theorem case_clause_context_exact : forall eager s targs cls r st ctx T s' targs' cls' r' st',
  check_term_gen eager (FCase s targs cls r) st ctx T = COk (FCase s' targs' cls' r', st') ->
  Forall (body_checked_in eager ctx cls) cls'.
Proof.
  intros eager s targs cls r st ctx T s' targs' cls' r' st' H. apply run_case in H.
  destruct H as (p0 & x0 & ns0 & c0 & b0 & clr & ty & xs & st1 & sc & st2 & cl & -> & _ & _ & H3 & E). inversion E; subst.
  eapply Forall_impl; [|eapply check_clauses_context_exact; exact H3].
  intros c' Hc. apply clause_checked_body. exact Hc.
Qed.
Theorem new_clause_context_exact : forall eager cls r st ctx T cls' r' st',
  check_term_gen eager (FNew cls r) st ctx T = COk (FNew cls' r', st') ->
  Forall (body_checked_in eager ctx cls) cls'.
Proof.
  intros eager cls r st ctx T cls' r' st' H. apply run_new in H.
  destruct H as (st0 & n & targs & ta & dt & cl & _ & -> & _ & H1 & E). inversion E; subst.
  eapply Forall_impl; [|eapply check_clauses_context_exact; exact H1].
  intros c' Hc. apply clause_checked_body. exact Hc.
Qed.

(* s occurs in t; sc = the names bound on the path from the root of t down to s *)
Inductive occ_sc (s : fterm) : list fname -> fterm -> Prop :=
| osc_here : occ_sc s [] s
| osc_op1 : forall sc a o b, occ_sc s sc a -> occ_sc s sc (FOp a o b)
| osc_op2 : forall sc a o b, occ_sc s sc b -> occ_sc s sc (FOp a o b)
| osc_if1 : forall sc so a b th el ty, occ_sc s sc a -> occ_sc s sc (FIfC so a b th el ty)
| osc_if2 : forall sc so a b th el ty, occ_sc s sc b -> occ_sc s sc (FIfC so a (Some b) th el ty)
| osc_if3 : forall sc so a b th el ty, occ_sc s sc th -> occ_sc s sc (FIfC so a b th el ty)
| osc_if4 : forall sc so a b th el ty, occ_sc s sc el -> occ_sc s sc (FIfC so a b th el ty)
| osc_print1 : forall sc nl a n ty, occ_sc s sc a -> occ_sc s sc (FPrint nl a n ty)
| osc_print2 : forall sc nl a n ty, occ_sc s sc n -> occ_sc s sc (FPrint nl a n ty)
| osc_let1 : forall sc v vty a b ty, occ_sc s sc a -> occ_sc s sc (FLet v vty a b ty)          (* the bound term: v not in scope *)
| osc_let2 : forall sc v vty a b ty, occ_sc s sc b -> occ_sc s (v :: sc) (FLet v vty a b ty)
| osc_call : forall sc f args r a, In a args -> occ_sc s sc a -> occ_sc s sc (FCall f args r)
| osc_ctor : forall sc x args r a, In a args -> occ_sc s sc a -> occ_sc s sc (FCtor x args r)
| osc_dtor1 : forall sc t x targs args r, occ_sc s sc t -> occ_sc s sc (FDtor t x targs args r)
| osc_dtor2 : forall sc t x targs args r a, In a args -> occ_sc s sc a -> occ_sc s sc (FDtor t x targs args r)
| osc_case1 : forall sc t targs cls r, occ_sc s sc t -> occ_sc s sc (FCase t targs cls r)     (* the scrutinee: no clause binder in scope *)
| osc_case2 : forall sc t targs cls r c, In c cls -> occ_sc s sc (clause_body c) ->
                occ_sc s (clause_names c ++ sc) (FCase t targs cls r)                          (* only this clause's binders *)
| osc_new : forall sc cls r c, In c cls -> occ_sc s sc (clause_body c) -> occ_sc s (clause_names c ++ sc) (FNew cls r)
| osc_label : forall sc l t r, occ_sc s sc t -> occ_sc s (l :: sc) (FLabel l t r)
| osc_goto : forall sc l t r, occ_sc s sc t -> occ_sc s sc (FGoto l t r)
| osc_exit : forall sc a r, occ_sc s sc a -> occ_sc s sc (FExit a r)
| osc_paren : forall sc t, occ_sc s sc t -> occ_sc s sc (FParen t).

Lemma occ_sc_var_inv : forall s sc v a c, occ_sc s sc (FVar v a c) -> s = FVar v a c.
Proof. intros s sc v a c H. inversion H; reflexivity. Qed.
Lemma occ_sc_occurs : forall s sc t, occ_sc s sc t -> occurs s t.
Proof. induction 1; eauto using occurs. Qed.
(* an occurrence lies on some path, and the names bound along it are binders of the term *)
Lemma occurs_occ_sc : forall s t, occurs s t -> exists bs, occ_sc s bs t /\ incl bs (binders t).
Proof.
  induction 1 as [ | | | | | | | | | | v vty a b ty _ IH| f args r a Hin _ IH| k args r a Hin _ IH
                 | | t k targs args r a Hin _ IH| | t targs cls r c Hin _ IH| cls r c Hin _ IH| l t r _ IH| | | ];
    [exists []; split; [constructor|intros y []]| ..];
    try destruct IHoccurs as [bs [Ho Hi]]; try destruct IH as [bs [Ho Hi]].
  (* the forms that bind nothing on the way to the occurrence (all but let-body, arguments, clauses, label) *)
  1-9, 13, 15, 19-21:
    exists bs; (split; [constructor; assumption|]); intros y Hy; specialize (Hi y Hy); simpl; rewrite ?in_app_iff; auto.
  - exists (v :: bs). split; [constructor; assumption|].
    intros y [<-|Hy]; simpl; rewrite ?in_app_iff; [auto|specialize (Hi y Hy); auto].
  - exists bs. split; [econstructor; eassumption|]. intros y Hy. simpl. rewrite binders_list_eq.
    eapply in_binders_list; eauto.
  - exists bs. split; [econstructor; eassumption|]. intros y Hy. simpl. rewrite binders_list_eq.
    eapply in_binders_list; eauto.
  - exists bs. split; [econstructor; eassumption|]. intros y Hy. simpl. rewrite binders_list_eq, in_app_iff. right.
    eapply in_binders_list; eauto.
  - exists (clause_names c ++ bs). split; [constructor; assumption|]. intros y Hy. simpl.
    rewrite binders_clauses_eq, in_app_iff. right. eapply in_binders_clauses; [eassumption|].
    destruct c; simpl in *. rewrite in_app_iff in *. destruct Hy; auto.
  - exists (clause_names c ++ bs). split; [constructor; assumption|]. intros y Hy. simpl.
    rewrite binders_clauses_eq. eapply in_binders_clauses; [eassumption|].
    destruct c; simpl in *. rewrite in_app_iff in *. destruct Hy; auto.
  - exists (l :: bs). split; [constructor; assumption|]. intros y [<-|Hy]; simpl; auto.
Qed.

Section Scoped.
  Variable ts : list tdecl.
  Variable fs : list fdef.
  Notation chk := (chk ts fs).

  Lemma chk_clauses_unbound_names : forall x c G td targs T cls,
    G x = None -> In c cls -> ~ In x (clause_names c) ->
    (forall G T, G x = None -> chk G (clause_body c) T = false) ->
    chk_clauses_with chk G td targs T cls = false.
  Proof.
    intros x c G td targs T cls HG. induction cls as [|d r IH]; intros Hin Hnb Hf; [destruct Hin|].
    simpl. destruct d as [p y xs cx body].
    destruct Hin as [<-|Hin].
    - apply andb_false_any. left. simpl in Hf, Hnb.
      destruct (find_xsig td y) as [sg|]; [|reflexivity].
      apply andb_false_any. right.
      assert (HG' : extend_sig G (td_params td) targs xs (xs_args sg) x = None) by (apply extend_sig_none; assumption).
      destruct T as [T|]; [apply Hf; assumption|]. destruct (xs_ret sg); [apply Hf; assumption|reflexivity].
    - apply andb_false_any. right. apply IH; assumption.
  Qed.

  (* s: a use of the name x that is ill-typed wherever x is unbound (a variable x, a goto x).  The first hypothesis is
     for arguments at consumer positions: there the rules do not call [chk] but test [is_cns] of a variable, so a
     non-variable fails outright and a variable must be x itself *)
  Theorem chk_scoped_false : forall x s,
    (is_var s = false \/ exists a c, s = FVar x a c) ->
    (forall G T, G x = None -> chk G s T = false) ->
    forall sc t, occ_sc s sc t -> ~ In x sc -> forall G T, G x = None -> chk G t T = false.
  Proof.
    intros x s Hv Hs sc t Hocc. induction Hocc; intros Hn G T HG.
    - apply Hs. exact HG.
    - simpl. rewrite IHHocc by assumption. apply andb_false_any; left; apply andb_false_r.
    - simpl. rewrite IHHocc by assumption. apply andb_false_r.
    - simpl. rewrite IHHocc by assumption. reflexivity.
    - simpl. rewrite IHHocc by assumption. apply andb_false_any; left; apply andb_false_any; left; apply andb_false_r.
    - simpl. rewrite IHHocc by assumption. apply andb_false_any; left; apply andb_false_r.
    - simpl. rewrite IHHocc by assumption. apply andb_false_r.
    - simpl. rewrite IHHocc by assumption. reflexivity.
    - simpl. rewrite IHHocc by assumption. apply andb_false_r.
    - simpl. rewrite IHHocc by assumption. apply andb_false_any; left; apply andb_false_r.
    - simpl. rewrite IHHocc; [apply andb_false_r|intro; apply Hn; right; assumption|].
      apply extend_none; [assumption|]. intro; apply Hn; left; assumption.
    - (* call *)
      simpl. destruct (find_def fs f) as [d|]; [|reflexivity]. apply andb_false_any. right.
      eapply chk_args_unbound with (x := x) (a0 := a); eauto.
      destruct (is_var a) eqn:Ev; [|left; reflexivity].
      destruct a; try discriminate. apply occ_sc_var_inv in Hocc. subst s. destruct Hv as [Hv|Hv]; [discriminate|right; exact Hv].
    - (* ctor *)
      simpl. destruct T as [|n targs]; [reflexivity|]. destruct (find_type ts n) as [td|]; [|reflexivity].
      apply andb_false_any. right. destruct (find_xsig td x0); [|reflexivity].
      eapply chk_args_unbound with (x := x) (a0 := a); eauto.
      destruct (is_var a) eqn:Ev; [|left; reflexivity].
      destruct a; try discriminate. apply occ_sc_var_inv in Hocc. subst s. destruct Hv as [Hv|Hv]; [discriminate|right; exact Hv].
    - (* dtor scrutinee *)
      simpl. destruct (find_xtor ts FCodata x0) as [[td sg]|]; [|reflexivity].
      rewrite IHHocc by assumption. apply andb_false_any. left. apply andb_false_any. left. apply andb_false_r.
    - (* dtor args *)
      simpl. destruct (find_xtor ts FCodata x0) as [[td sg]|]; [|reflexivity].
      apply andb_false_any. left. apply andb_false_any. right.
      eapply chk_args_unbound with (x := x) (a0 := a); eauto.
      destruct (is_var a) eqn:Ev; [|left; reflexivity].
      destruct a; try discriminate. apply occ_sc_var_inv in Hocc. subst s. destruct Hv as [Hv|Hv]; [discriminate|right; exact Hv].
    - (* case scrutinee *)
      simpl. destruct cls as [|cl0 clr]; [reflexivity|].
      destruct (find_xtor ts FData (clause_xtor cl0)) as [[td sg]|]; [|reflexivity].
      rewrite IHHocc by assumption. apply andb_false_any. left. apply andb_false_any. left. apply andb_false_r.
    - (* case clause *)
      simpl. destruct cls as [|cl0 clr]; [destruct H|].
      destruct (find_xtor ts FData (clause_xtor cl0)) as [[td sg]|]; [|reflexivity].
      apply andb_false_any. right.
      eapply (chk_clauses_unbound_names x c); [exact HG|exact H| |].
      + intro; apply Hn; apply in_or_app; left; assumption.
      + intros G' T' HG'. apply IHHocc; [intro; apply Hn; apply in_or_app; right; assumption|assumption].
    - (* new clause *)
      simpl. destruct T as [|n targs]; [reflexivity|]. destruct (find_type ts n) as [td|]; [|reflexivity].
      apply andb_false_any. right.
      eapply (chk_clauses_unbound_names x c); [exact HG|exact H| |].
      + intro; apply Hn; apply in_or_app; left; assumption.
      + intros G' T' HG'. apply IHHocc; [intro; apply Hn; apply in_or_app; right; assumption|assumption].
    - (* label *)
      simpl. apply IHHocc; [intro; apply Hn; right; assumption|].
      apply extend_none; [assumption|]. intro; apply Hn; left; assumption.
    - simpl. destruct (cns_ty G l); [apply IHHocc; assumption|reflexivity].
    - simpl. apply IHHocc; assumption.
    - simpl. apply IHHocc; assumption.
  Qed.

  Lemma goto_unbound : forall x t r (G : env) T, G x = None -> chk G (FGoto x t r) T = false.
  Proof. intros x t r G T H. simpl. unfold cns_ty. rewrite H. reflexivity. Qed.

  Theorem chk_occurs_unbound : forall x a c t, occurs (FVar x a c) t -> ~ In x (binders t) ->
    forall G T, G x = None -> chk G t T = false.
  Proof.
    intros x a c t Hocc Hnb. destruct (occurs_occ_sc _ _ Hocc) as [sc [Ho Hi]].
    apply (chk_scoped_false x (FVar x a c)) with (sc := sc); [right; eauto| |exact Ho|intro Hx; exact (Hnb (Hi x Hx))].
    intros G T HG. apply chk_var_unbound. exact HG.
  Qed.
End Scoped.

Definition use_of (x : fname) (s : fterm) : Prop :=
  (exists a c, s = FVar x a c) \/ (exists t r, s = FGoto x t r).

Lemma scope_leak_def_not_ok : forall p d x s sc, In d (fdefs (fpdecls p)) ->
  use_of x s -> occ_sc s sc (fdbody d) -> ~ In x sc -> ~ In x (map fbvar (fdctx d)) ->
  def_ok (tdecls (fpdecls p)) (fdefs (fpdecls p)) d = false.
Proof.
  intros p d x s sc Hin Hu Hocc Hsc Hp. unfold def_ok.
  assert (Hf : chk (tdecls (fpdecls p)) (fdefs (fpdecls p)) (env_of_ctx env_empty (fdctx d)) (fdbody d) (fdret d) = false).
  { eapply (chk_scoped_false _ _ x s); [| |exact Hocc|exact Hsc|apply env_of_ctx_none; [reflexivity|exact Hp]].
    - destruct Hu as [[a [c ->]]|[t [r ->]]]; [right; eauto|left; reflexivity].
    - intros G T HG. destruct Hu as [[a [c ->]]|[t [r ->]]]; [apply chk_var_unbound; exact HG|apply goto_unbound; exact HG]. }
  rewrite Hf. apply andb_false_r.
Qed.

(* the declarative rules reject: for all programs, all sites, whatever else binds the name *)
Theorem reject_scope_leak : forall p d x s sc, In d (fdefs (fpdecls p)) ->
  use_of x s -> occ_sc s sc (fdbody d) -> ~ In x sc -> ~ In x (map fbvar (fdctx d)) ->
  has_type_b p = false.
Proof.
  intros p d x s sc Hin Hu Hocc Hsc Hp. unfold has_type_b. apply andb_false_any. right.
  eapply forallb_false_in; [exact Hin|]. eapply scope_leak_def_not_ok; eassumption.
Qed.
(* any program in which a definition mentions, anywhere, a variable that is neither a parameter of
   the definition nor bound by a let / label / clause of its body *)
Theorem reject_unbound_variable : forall p d x a c,
  In d (fdefs (fpdecls p)) -> occurs (FVar x a c) (fdbody d) ->
  ~ In x (map fbvar (fdctx d)) -> ~ In x (binders (fdbody d)) ->
  has_type_b p = false.
Proof.
  intros p d x a c Hin Hocc Hp Hb. eapply has_type_b_def_false; [eassumption|].
  eapply chk_occurs_unbound; try eassumption.
  apply env_of_ctx_none; [reflexivity|assumption].
Qed.
(* the checker rejects a scope leak as well *)
Theorem check_rejects_scope_leak : forall p d x s sc, prog_names_ok p = true -> In d (fdefs (fpdecls p)) ->
  use_of x s -> occ_sc s sc (fdbody d) -> ~ In x sc -> ~ In x (map fbvar (fdctx d)) ->
  exists e, check p = CErr e.
Proof.
  intros p d x s sc Hm Hin Hu Hocc Hsc Hp. eapply def_not_ok_rejected; [exact Hm|exact Hin|].
  eapply scope_leak_def_not_ok; eassumption.
Qed.

(* witnesses: the two effects of a scope leak between clauses
   data Sum { Left(a: i64), Right(b: i64) }
   (1) def f(s: Sum): i64 { s.case { Left(a) => a, Right(b) => a } }        `a` is a sibling's binder: rejected
   (2) data Box { MkBox }  data T { K1(a: Box), K2 }
       def g(x: i64, t: T): i64 { t.case { K1(x) => 0, K2 => x } }          the outer `x` in the sibling: accepted *)
Local Open Scope string_scope.
Definition p_sibling_binder : fprog :=
  mkfprog [FDData (mkfdata "Sum" [] [mkfctor "Left" [mkfb "a" FPrd FI64]; mkfctor "Right" [mkfb "b" FPrd FI64]]);
           FDDef (mkfdef "f" [mkfb "s" FPrd (FDecl "Sum" [])] FI64
                    (FCase (FVar "s" None None) []
                       [FClause FData "Left" ["a"] [] (FVar "a" None None);
                        FClause FData "Right" ["b"] [] (FVar "a" None None)] None))].
Definition p_outer_in_sibling : fprog :=
  mkfprog [FDData (mkfdata "Box" [] [mkfctor "MkBox" []]);
           FDData (mkfdata "T" [] [mkfctor "K1" [mkfb "a" FPrd (FDecl "Box" [])]; mkfctor "K2" []]);
           FDDef (mkfdef "g" [mkfb "x" FPrd FI64; mkfb "t" FPrd (FDecl "T" [])] FI64
                    (FCase (FVar "t" None None) []
                       [FClause FData "K1" ["x"] [] (FLit 0); FClause FData "K2" [] [] (FVar "x" None None)] None))].
Lemma sibling_binder_rejected : check p_sibling_binder = CErr EUnboundVariable /\ has_type_b p_sibling_binder = false.
Proof. split; vm_compute; reflexivity. Qed.
Lemma sibling_binder_is_scope_leak :
  exists d, In d (fdefs (fpdecls p_sibling_binder))
    /\ occ_sc (FVar "a" None None) ["b"] (fdbody d) /\ ~ In "a" ["b"] /\ ~ In "a" (map fbvar (fdctx d)).
Proof.
  eexists. split; [left; reflexivity|]. split.
  - simpl. apply (osc_case2 _ [] (FVar "s" None None) [] _ None (FClause FData "Right" ["b"] [] (FVar "a" None None)));
      [right; left; reflexivity|constructor].
  - split; simpl; intros [H|H]; try discriminate; auto.
Qed.
Lemma outer_in_sibling_accepted : has_type_b p_outer_in_sibling = true /\ exists q, check p_outer_in_sibling = COk q.
Proof. split; [vm_compute; reflexivity|eexists; vm_compute; reflexivity]. Qed.
