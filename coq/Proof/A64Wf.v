(* C13 on AArch64, the arithmetic part: the code around the print runtime and the routine
   prologue/epilogue of the model of axcut2aarch64 (Model/A64.v: a_print,
   save/restore_caller_save_registers, caller_save_registers_info, setup, cleanup), for EVERY
   context (any number of variables of any kinds).  Mirrors Proof/X86Wf.v (C13 part).

   Register numbers are the INTERNAL ones: 0..17 = X0..X17 (caller-saved under AAPCS64),
   18..28 = X19..X29 (callee-saved), 29 = X30 (link register).

   [sp_delta cs] is the net change of SP caused by a straight-line instruction list; [sp_safe d cs]
   walks the list with the running displacement d of SP from its value in the routine body and
   demands d = 0 (mod 16) at every BL and at every SP-relative access (the hardware alignment check
   and the AAPCS64 rule at calls), and that no instruction writes SP other than the four tracked
   forms (SUB/ADD SP, SP, #i; STP pre-index / LDP post-index on SP). *)
From Coq Require Import List ZArith NArith String Bool Lia.
From SCC Require Import Base.Sexp Lang.AxSyn Model.Backend Model.A64 Generated.Constants.
Import ListNotations.
Open Scope Z_scope.

Definition sp_delta1 (c : acode) : Z :=
  match c with
  | SUBI SP SP i => - i
  | ADDI SP SP i => i
  | STP_PRE_INDEX _ _ SP i => i
  | LDP_POST_INDEX _ _ SP i => i
  | _ => 0
  end.
Definition sp_delta (cs : list acode) : Z := fold_right (fun c acc => sp_delta1 c + acc) 0 cs.

Definition is_sp (r : areg) : bool := match r with SP => true | _ => false end.
(* the registers an instruction writes *)
Definition writes (c : acode) : list areg :=
  match c with
  | ADD d _ _ | ADDI d _ _ | SUB d _ _ | SUBI d _ _ | MUL d _ _ | SDIV d _ _ | MSUB d _ _ _ => [d]
  | ADR d _ | MOVR d _ | MOVZ d _ _ | MOVN d _ _ | MOVK d _ _ | LDR d _ _ => [d]
  | LDP_POST_INDEX d1 d2 b _ => [d1; d2; b]
  | STP_PRE_INDEX _ _ b _ => [b]
  | _ => []
  end.
(* SP is written only by the forms whose effect sp_delta1 accounts for *)
Definition sp_tracked (c : acode) : bool :=
  match c with
  | SUBI SP SP _ | ADDI SP SP _ => true
  | STP_PRE_INDEX a b SP _ | LDP_POST_INDEX a b SP _ => negb (is_sp a) && negb (is_sp b)
  | _ => negb (existsb is_sp (writes c))
  end.
(* instructions at which SP must be 16-byte aligned: calls, and loads/stores with SP as base *)
Definition sp_sensitive (c : acode) : bool :=
  match c with
  | BL _ => true
  | LDR _ SP _ | STR _ SP _ | STP_PRE_INDEX _ _ SP _ | LDP_POST_INDEX _ _ SP _ => true
  | _ => false
  end.
Fixpoint sp_safe (d : Z) (cs : list acode) : Prop :=
  match cs with
  | [] => True
  | c :: r => (sp_sensitive c = true -> d mod 16 = 0) /\ sp_tracked c = true /\ sp_safe (d + sp_delta1 c) r
  end.

Lemma sp_delta_cons c l : sp_delta (c :: l) = sp_delta1 c + sp_delta l.
Proof. reflexivity. Qed.
Lemma sp_delta_app a b : sp_delta (a ++ b) = sp_delta a + sp_delta b.
Proof.
  induction a as [|c a IH]; [reflexivity|].
  change ((c :: a) ++ b)%list with (c :: (a ++ b))%list. rewrite !sp_delta_cons, IH. lia.
Qed.
Lemma sp_safe_app d a b : sp_safe d (a ++ b) <-> sp_safe d a /\ sp_safe (d + sp_delta a) b.
Proof.
  revert d; induction a as [|c a IH]; intros d.
  - cbn [app sp_safe]. change (sp_delta []) with 0. rewrite Z.add_0_r. tauto.
  - change ((c :: a) ++ b)%list with (c :: (a ++ b))%list. cbn [sp_safe]. rewrite IH, sp_delta_cons, Z.add_assoc. tauto.
Qed.
(* instructions that neither move SP nor write it *)
Definition sp_neutral (c : acode) : Prop := sp_tracked c = true /\ sp_delta1 c = 0.
Lemma sp_delta_neutral l : Forall sp_neutral l -> sp_delta l = 0.
Proof. induction 1 as [|c l [_ Hc] _ IH]; [reflexivity|]. rewrite sp_delta_cons, Hc, IH. reflexivity. Qed.
Lemma sp_safe_neutral d l : d mod 16 = 0 -> Forall sp_neutral l -> sp_safe d l.
Proof.
  intros Hd. induction 1 as [|c l [Ht Hc] _ IH]; cbn [sp_safe]; [exact I|].
  rewrite Hc, Z.add_0_r. auto.
Qed.
Lemma Forall_map_neutral {X} (f : X -> acode) (l : list X) : (forall x, sp_neutral (f x)) -> Forall sp_neutral (map f l).
Proof. intros H. induction l; cbn; constructor; auto. Qed.

(* numbered lists: combine (nseq 0 n) l *)
Fixpoint indexed {X} (o : N) (l : list X) : list (N * X) :=
  match l with [] => [] | x :: r => (o, x) :: indexed (o + 1) r end.
Lemma nseq_indexed {X} (l : list X) : forall o, combine (nseq o (N.of_nat (List.length l))) l = indexed o l.
Proof.
  unfold nseq. induction l as [|x l IH]; intros o; [rewrite Nnat.Nat2N.id; reflexivity|].
  rewrite Nnat.Nat2N.id. cbn [List.length seq map combine indexed]. rewrite Nnat.N2Nat.id. f_equal.
  specialize (IH (o + 1)%N). rewrite Nnat.Nat2N.id in IH. rewrite <- IH. f_equal. f_equal. f_equal. lia.
Qed.
Lemma indexed_length {X} (l : list X) o : List.length (indexed o l) = List.length l.
Proof. revert o; induction l; intros o; cbn; auto. Qed.
Lemma indexed_snd {X} (l : list X) o : map snd (indexed o l) = l.
Proof. revert o; induction l as [|x l IH]; intros o; cbn; [reflexivity|]. now rewrite IH. Qed.
Lemma indexed_nth {X} (l : list X) : forall o k x, nth_error l k = Some x -> nth_error (indexed o l) k = Some ((o + N.of_nat k)%N, x).
Proof.
  induction l as [|y l IH]; intros o k x H; [destruct k; discriminate|].
  destruct k as [|k]; cbn in *.
  - inversion H; subst. now rewrite N.add_0_r.
  - rewrite (IH (o + 1)%N k x H). f_equal. f_equal. lia.
Qed.
Lemma indexed_in {X} (l : list X) : forall o i x, In (i, x) (indexed o l) -> (o <= i)%N /\ nth_error l (N.to_nat (i - o)) = Some x.
Proof.
  induction l as [|y l IH]; intros o i x H; [destruct H|].
  destruct H as [E|H].
  - inversion E; subst. split; [lia|]. now rewrite N.sub_diag.
  - destruct (IH _ _ _ H) as [L Hn]. split; [lia|].
    replace (N.to_nat (i - o)) with (S (N.to_nat (i - (o + 1)))) by lia. exact Hn.
Qed.
Lemma indexed_fst_nodup {X} (l : list X) : forall o, NoDup (map fst (indexed o l)).
Proof.
  induction l as [|x l IH]; intros o; cbn; constructor; [|apply IH].
  intros Hin. apply in_map_iff in Hin as ([i y] & E & Hin). cbn in E; subst i. apply indexed_in in Hin. lia.
Qed.
(* distinct indices stay distinct under an injective function *)
Lemma NoDup_map_fst_inj {X Y} (h : N -> Y) (l : list (N * X)) :
  (forall i j, h i = h j -> i = j) -> NoDup (map fst l) -> NoDup (map (fun p => h (fst p)) l).
Proof.
  intros INJ. induction l as [|[i x] l IH]; cbn [map fst]; intros ND; constructor; inversion ND as [|? ? Hn ND']; subst; auto.
  intros Hin. apply Hn. apply in_map_iff in Hin as ([j y] & E & Hin). apply in_map_iff. exists (j, y). split; [exact (INJ _ _ E)|exact Hin].
Qed.

(* the save / restore code, for every list of registers *)
Section SaveRestore.
Variables (fb : N) (regs : list N).
Let used := backup_used fb regs.
Let pc := push_count fb regs.
Let rest := (List.length regs - used)%nat.

Definition movs_out := map (fun or_ : N * N => MOVR (X (fb + fst or_)) (X (snd or_))) (indexed 0 (firstn used regs)).
Definition movs_back := map (fun or_ : N * N => MOVR (X (snd or_)) (X (fb + fst or_))) (indexed 0 (firstn used regs)).
Definition strs := map (fun or_ : N * N => STR (X (snd or_)) SP (address (Z.of_nat pc - 1 - Z.of_N (fst or_)))) (indexed 0 (skipn used regs)).
Definition ldrs := map (fun or_ : N * N => LDR (X (snd or_)) SP (address (Z.of_nat pc - 1 - Z.of_N (fst or_)))) (rev (indexed 0 (skipn used regs))).

Lemma used_le : (used <= List.length regs)%nat.
Proof. unfold used, backup_used. lia. Qed.
Lemma firstn_used_length : List.length (firstn used regs) = used.
Proof. rewrite firstn_length. pose proof used_le. lia. Qed.
Lemma skipn_used_length : List.length (skipn used regs) = rest.
Proof. apply skipn_length. Qed.

Lemma save_shape :
  save_caller_save_registers fb regs =
  movs_out ++ (if Nat.eqb rest 0 then [] else [SUBI SP SP (address (Z.of_nat pc))] ++ strs).
Proof.
  unfold save_caller_save_registers, movs_out, strs. fold used pc rest.
  rewrite <- firstn_used_length at 1. rewrite nseq_indexed.
  rewrite <- skipn_used_length. rewrite nseq_indexed. reflexivity.
Qed.
Lemma restore_shape :
  restore_caller_save_registers fb regs =
  movs_back ++ (if Nat.eqb rest 0 then [] else ldrs ++ [ADDI SP SP (address (Z.of_nat pc))]).
Proof.
  unfold restore_caller_save_registers, movs_back, ldrs. fold used pc rest.
  rewrite <- firstn_used_length at 1. rewrite nseq_indexed.
  rewrite <- skipn_used_length. rewrite nseq_indexed. reflexivity.
Qed.

Lemma pc_even : Nat.even pc = true.
Proof.
  unfold pc, push_count. fold used. destruct (Nat.even (List.length regs - used)) eqn:E; [exact E|].
  rewrite Nat.even_succ. rewrite <- Nat.negb_even, E. reflexivity.
Qed.
Lemma pc_bounds : (rest <= pc <= S rest)%nat.
Proof. unfold pc, push_count. fold used rest. destruct (Nat.even rest); lia. Qed.
Lemma push_area_mod16 : address (Z.of_nat pc) mod 16 = 0.
Proof.
  pose proof pc_even as E. apply Nat.even_spec in E as (h & E). unfold address. change A64C.address1 with 8.
  rewrite E. replace (8 * Z.of_nat (2 * h)) with (Z.of_nat h * 16) by lia. apply Z.mod_mul. lia.
Qed.

Lemma movs_out_neutral : Forall sp_neutral movs_out.
Proof. apply Forall_map_neutral. intros [a b]. split; reflexivity. Qed.
Lemma movs_back_neutral : Forall sp_neutral movs_back.
Proof. apply Forall_map_neutral. intros [a b]. split; reflexivity. Qed.
Lemma strs_neutral : Forall sp_neutral strs.
Proof. apply Forall_map_neutral. intros [a b]. split; reflexivity. Qed.
Lemma ldrs_neutral : Forall sp_neutral ldrs.
Proof. apply Forall_map_neutral. intros [a b]. split; reflexivity. Qed.

(* the net effect of the save code on SP: nothing, or minus the (even number of) 8-byte cells pushed *)
Lemma save_delta :
  sp_delta (save_caller_save_registers fb regs) = if Nat.eqb rest 0 then 0 else - address (Z.of_nat pc).
Proof.
  rewrite save_shape, sp_delta_app, (sp_delta_neutral _ movs_out_neutral).
  destruct (Nat.eqb rest 0); [reflexivity|].
  rewrite sp_delta_app, (sp_delta_neutral _ strs_neutral). cbn. lia.
Qed.
Lemma restore_delta :
  sp_delta (restore_caller_save_registers fb regs) = if Nat.eqb rest 0 then 0 else address (Z.of_nat pc).
Proof.
  rewrite restore_shape, sp_delta_app, (sp_delta_neutral _ movs_back_neutral).
  destruct (Nat.eqb rest 0); [reflexivity|].
  rewrite sp_delta_app, (sp_delta_neutral _ ldrs_neutral). cbn. lia.
Qed.

(* SP = 0 (mod 16) in the body ==> SP = 0 (mod 16) after the save code, i.e. at the BL *)
Theorem save_caller_save_alignment : sp_delta (save_caller_save_registers fb regs) mod 16 = 0.
Proof.
  rewrite save_delta. destruct (Nat.eqb rest 0); [reflexivity|].
  rewrite Z.mod_opp_l_z; [reflexivity|lia|apply push_area_mod16].
Qed.
Theorem save_restore_balanced :
  sp_delta (save_caller_save_registers fb regs) + sp_delta (restore_caller_save_registers fb regs) = 0.
Proof. rewrite save_delta, restore_delta. destruct (Nat.eqb rest 0); lia. Qed.

(* every SP-relative store of the save code and every load of the restore code happens with SP
   16-byte aligned; SP is only moved by the one SUB / ADD *)
Theorem save_sp_safe d : d mod 16 = 0 -> sp_safe d (save_caller_save_registers fb regs).
Proof.
  intros Hd. rewrite save_shape. apply sp_safe_app. split; [apply sp_safe_neutral; auto using movs_out_neutral|].
  rewrite (sp_delta_neutral _ movs_out_neutral), Z.add_0_r.
  destruct (Nat.eqb rest 0); [exact I|].
  cbn [app sp_safe sp_sensitive sp_tracked sp_delta1]. split; [discriminate|]. split; [reflexivity|].
  apply sp_safe_neutral; [|apply strs_neutral].
  rewrite <- Zplus_mod_idemp_r. rewrite Z.mod_opp_l_z by (lia || apply push_area_mod16).
  now rewrite Z.add_0_r.
Qed.
Theorem restore_sp_safe d :
  d mod 16 = 0 -> sp_safe (d + sp_delta (save_caller_save_registers fb regs)) (restore_caller_save_registers fb regs).
Proof.
  intros Hd. assert (D : (d + sp_delta (save_caller_save_registers fb regs)) mod 16 = 0).
  { rewrite <- Zplus_mod_idemp_r, save_caller_save_alignment, Z.add_0_r. exact Hd. }
  rewrite restore_shape. apply sp_safe_app. split; [apply sp_safe_neutral; auto using movs_back_neutral|].
  rewrite (sp_delta_neutral _ movs_back_neutral), Z.add_0_r.
  destruct (Nat.eqb rest 0); [exact I|].
  apply sp_safe_app. split; [apply sp_safe_neutral; auto using ldrs_neutral|].
  cbn [sp_safe sp_sensitive sp_tracked]. split; [discriminate|]. split; [reflexivity|exact I].
Qed.

(* the restore code mirrors the save code: the register-to-register backups are undone pairwise;
   the loads are the stores in reverse order, register by register from the SAME stack cell;
   the cells are distinct, 8-aligned, and inside the area the SUB reserved; together the backups
   and the stores cover exactly the list of registers to save, in order *)
Definition str_to_ldr (c : acode) : acode := match c with STR r b i => LDR r b i | c => c end.
Definition mov_swap (c : acode) : acode := match c with MOVR a b => MOVR b a | c => c end.
Definition saved_reg (c : acode) : list N :=
  match c with MOVR _ (X r) => [r] | STR (X r) SP _ => [r] | _ => [] end.
Definition str_offset (c : acode) : list Z := match c with STR _ SP i => [i] | _ => [] end.

Theorem restore_mirrors_save :
  exists sub add,
    save_caller_save_registers fb regs = movs_out ++ sub ++ (if Nat.eqb rest 0 then [] else strs) /\
    restore_caller_save_registers fb regs = movs_back ++ (if Nat.eqb rest 0 then [] else ldrs) ++ add /\
    movs_back = map mov_swap movs_out /\
    ldrs = rev (map str_to_ldr strs) /\
    ((rest = 0%nat /\ sub = [] /\ add = []) \/
     (rest <> 0%nat /\ sub = [SUBI SP SP (address (Z.of_nat pc))] /\ add = [ADDI SP SP (address (Z.of_nat pc))])) /\
    flat_map saved_reg (movs_out ++ strs) = regs /\
    NoDup (flat_map str_offset strs) /\
    Forall (fun i => 0 <= i /\ i + 8 <= address (Z.of_nat pc) /\ i mod 8 = 0) (flat_map str_offset strs).
Proof.
  exists (if Nat.eqb rest 0 then [] else [SUBI SP SP (address (Z.of_nat pc))]),
         (if Nat.eqb rest 0 then [] else [ADDI SP SP (address (Z.of_nat pc))]).
  split; [rewrite save_shape; destruct (Nat.eqb rest 0); reflexivity|].
  split; [rewrite restore_shape; destruct (Nat.eqb rest 0); reflexivity|].
  split; [unfold movs_back, movs_out; rewrite map_map; apply map_ext; intros [a b]; reflexivity|].
  split; [unfold ldrs, strs; rewrite map_map, <- map_rev; apply map_ext; intros [a b]; reflexivity|].
  split; [destruct (Nat.eqb_spec rest 0); [left|right]; auto|].
  split.
  { rewrite flat_map_app. unfold movs_out, strs.
    assert (G : forall (f : N * N -> acode) l, (forall p, saved_reg (f p) = [snd p]) -> flat_map saved_reg (map f l) = map snd l).
    { intros f l H. induction l as [|p l IH]; cbn; [reflexivity|]. now rewrite H, IH. }
    rewrite !G by (intros [a b]; reflexivity). rewrite !indexed_snd. apply firstn_skipn. }
  assert (OFF : flat_map str_offset strs = map (fun or_ : N * N => address (Z.of_nat pc - 1 - Z.of_N (fst or_))) (indexed 0 (skipn used regs))).
  { unfold strs. induction (indexed 0 (skipn used regs)) as [|p l IH]; [reflexivity|]. cbn [map flat_map]. rewrite IH. reflexivity. }
  rewrite OFF. split.
  - (* distinct cells: the index determines the offset *)
    apply (NoDup_map_fst_inj (fun i => address (Z.of_nat pc - 1 - Z.of_N i))); [|apply indexed_fst_nodup].
    intros i j E. unfold address in E. change A64C.address1 with 8 in E. lia.
  - apply Forall_forall. intros z Hz. apply in_map_iff in Hz as ([i x] & <- & Hin). cbn [fst].
    apply indexed_in in Hin as [_ Hn]. rewrite N.sub_0_r in Hn.
    assert (N.to_nat i < rest)%nat as Hi by (rewrite <- skipn_used_length; apply nth_error_Some; congruence).
    pose proof pc_bounds. unfold address. change A64C.address1 with 8.
    split; [lia|]. split; [lia|]. rewrite Z.mul_comm. apply Z.mod_mul. lia.
Qed.
(* the same lists as data: (backup register, saved register) and (saved register, stack offset) *)
Definition backup_pairs : list (N * N) := map (fun or_ : N * N => (fb + fst or_, snd or_)%N) (indexed 0 (firstn used regs)).
Definition push_cells : list (N * Z) :=
  map (fun or_ : N * N => (snd or_, address (Z.of_nat pc - 1 - Z.of_N (fst or_)))) (indexed 0 (skipn used regs)).
Lemma movs_out_pairs : movs_out = map (fun p : N * N => MOVR (X (fst p)) (X (snd p))) backup_pairs.
Proof. unfold movs_out, backup_pairs. rewrite map_map. reflexivity. Qed.
Lemma movs_back_pairs : movs_back = map (fun p : N * N => MOVR (X (snd p)) (X (fst p))) backup_pairs.
Proof. unfold movs_back, backup_pairs. rewrite map_map. reflexivity. Qed.
Lemma strs_cells : strs = map (fun p : N * Z => STR (X (fst p)) SP (snd p)) push_cells.
Proof. unfold strs, push_cells. rewrite map_map. reflexivity. Qed.
Lemma ldrs_cells : ldrs = map (fun p : N * Z => LDR (X (fst p)) SP (snd p)) (rev push_cells).
Proof. unfold ldrs, push_cells. rewrite <- map_rev, map_map. reflexivity. Qed.
Lemma backup_pairs_snd : map snd backup_pairs = firstn used regs.
Proof. unfold backup_pairs. rewrite map_map. cbn [snd]. apply indexed_snd. Qed.
Lemma push_cells_fst : map fst push_cells = skipn used regs.
Proof. unfold push_cells. rewrite map_map. cbn [fst]. apply indexed_snd. Qed.
Lemma backup_pairs_range d r : In (d, r) backup_pairs -> (fb <= d < fb + N.of_nat used)%N.
Proof.
  unfold backup_pairs. intros H. apply in_map_iff in H as ([o x] & E & Hin). inversion E; subst. cbn [fst].
  apply indexed_in in Hin as [_ Hn]. rewrite N.sub_0_r in Hn.
  assert (N.to_nat o < used)%nat by (rewrite <- firstn_used_length; apply nth_error_Some; congruence). lia.
Qed.
Lemma backup_pairs_nodup : NoDup (map fst backup_pairs).
Proof.
  unfold backup_pairs. rewrite map_map. cbn [fst].
  apply (NoDup_map_fst_inj (fun i => fb + i)%N); [intros i j E; lia|apply indexed_fst_nodup].
Qed.
Lemma push_cells_offsets : map snd push_cells = flat_map str_offset strs.
Proof.
  unfold strs, push_cells. rewrite map_map. cbn [snd].
  induction (indexed 0 (skipn used regs)) as [|p l IH]; [reflexivity|]. cbn [map flat_map]. rewrite <- IH. reflexivity.
Qed.
Lemma push_cells_nodup : NoDup (map snd push_cells).
Proof. rewrite push_cells_offsets. destruct restore_mirrors_save as (? & ? & _ & _ & _ & _ & _ & _ & H & _). exact H. Qed.
Lemma push_cells_range :
  Forall (fun i => 0 <= i /\ i + 8 <= address (Z.of_nat pc) /\ i mod 8 = 0) (map snd push_cells).
Proof. rewrite push_cells_offsets. destruct restore_mirrors_save as (? & ? & _ & _ & _ & _ & _ & _ & _ & H). exact H. Qed.
End SaveRestore.

Definition ctx_regs (context : ctx) : list N :=
  flat_map (fun ob : N * binding =>
              match bchi (snd ob) with
              | Ext => [CALLER_SAVE_FIRST + 2 * fst ob + 1]
              | _ => [CALLER_SAVE_FIRST + 2 * fst ob; CALLER_SAVE_FIRST + 2 * fst ob + 1]
              end)%N (indexed 0 (firstn 7 context)).
Lemma info_shape context :
  caller_save_registers_info context =
  (N.max (2 * N.of_nat (List.length context) + 4) 18,
   [0; 1]%N ++ (if N.leb 30 (2 * N.of_nat (List.length context) + 4) then [29]%N else []) ++ ctx_regs context).
Proof.
  unfold caller_save_registers_info, ctx_regs. rewrite nseq_indexed.
  change (N.to_nat ((CALLER_SAVE_LAST + 1 - CALLER_SAVE_FIRST) / 2)) with 7%nat.
  f_equal. f_equal. f_equal. apply flat_map_ext. intros [o b]. reflexivity.
Qed.

(* the register of a variable's temporary *)
Lemma tfp_register p r :
  temporary_from_position p = Ok (AR (X r)) -> r = (p + 4)%N /\ (r < 30)%N.
Proof.
  unfold temporary_from_position. change RESERVED with 4%N. change REGISTER_NUM with 30%N.
  destruct (N.ltb_spec (p + 4) 30) as [H|H].
  - intros E; inversion E; subst. auto.
  - destruct (N.ltb _ _); discriminate.
Qed.

(* EVERY caller-saved register (X0-X17) and the link register X30 that holds a live variable - the
   second temporary of any variable, the first temporary of a non-integer variable - is in the list
   of registers saved around the call.
   This is the theorem that FAILS for the code before fix b8c7d78 (`first_free_register > REGISTER_NUM`
   instead of `>=`): with exactly 13 variables the second temporary of the 13th variable is X30
   (internal 29 = 2*12+1+4), first_free_register = 30 = REGISTER_NUM, and 29 would not be in the list:
   the case `r = 29` below cannot be closed (N.leb 30 30 = true is what closes it; `N.ltb 30 30` is false). *)
Theorem saved_covers_live (context : ctx) i b n r :
  nth_error context i = Some b -> (n = Snd \/ bchi b <> Ext) ->
  temporary_from_position (2 * N.of_nat i + tnum_n n) = Ok (AR (X r)) ->
  (r <= 17)%N \/ r = 29%N ->
  In r (snd (caller_save_registers_info context)).
Proof.
  intros Hi Hn Ht Hr. rewrite info_shape. cbn [snd]. apply tfp_register in Ht as [-> Hlt].
  assert (Hlen : (i < List.length context)%nat) by (apply nth_error_Some; congruence).
  destruct Hr as [Hr|Hr].
  - (* a caller-saved register: one of the first seven variables *)
    apply in_or_app; right. apply in_or_app; right.
    assert (i < 7)%nat as Hi7 by (destruct n; cbn [tnum_n] in Hr; lia).
    unfold ctx_regs. apply in_flat_map. exists (N.of_nat i, b). split.
    + assert (nth_error (firstn 7 context) i = Some b) as Hf.
      { rewrite <- (firstn_skipn 7 context) in Hi. rewrite nth_error_app1 in Hi; [exact Hi|].
        rewrite firstn_length. lia. }
      apply (indexed_nth _ 0%N) in Hf. rewrite N.add_0_l in Hf. eapply nth_error_In; eauto.
    + cbn [fst snd]. change CALLER_SAVE_FIRST with 4%N.
      destruct n; cbn [tnum_n].
      * destruct Hn as [Hn|Hn]; [discriminate|]. destruct (bchi b); [left; lia|left; lia|congruence].
      * destruct (bchi b); cbn [In]; [right; left; lia|right; left; lia|left; lia].
  - (* the link register: the 13th variable exists, so first_free_register >= REGISTER_NUM *)
    apply in_or_app; right. apply in_or_app; left.
    destruct (N.leb_spec 30 (2 * N.of_nat (List.length context) + 4)) as [_|Hc]; [left; symmetry; exact Hr|].
    exfalso. destruct n; cbn [tnum_n] in Hr; lia.
Qed.

(* HEAP (X0) and FREE (X1) are always saved; X30 is saved exactly when a variable lives in it,
   i.e. exactly when the context has a 13th variable *)
Theorem saved_heap_free context :
  In 0%N (snd (caller_save_registers_info context)) /\ In 1%N (snd (caller_save_registers_info context)).
Proof. rewrite info_shape. cbn. auto. Qed.
Lemma ctx_regs_range context r : In r (ctx_regs context) -> (4 <= r <= 17)%N.
Proof.
  unfold ctx_regs. intros H. apply in_flat_map in H as ([o b] & Hin & Hr). cbn [fst snd] in Hr.
  apply indexed_in in Hin as [_ Hn]. rewrite N.sub_0_r in Hn.
  assert (N.to_nat o < 7)%nat.
  { assert (N.to_nat o < List.length (firstn 7 context))%nat by (apply nth_error_Some; congruence).
    rewrite firstn_length in *. lia. }
  change CALLER_SAVE_FIRST with 4%N in Hr.
  destruct (bchi b); cbn [In] in Hr; lia.
Qed.
Lemma ctx_regs_nodup context : NoDup (ctx_regs context).
Proof.
  unfold ctx_regs. change CALLER_SAVE_FIRST with 4%N.
  assert (G : forall (l : list binding) o,
             NoDup (flat_map (fun ob : N * binding => match bchi (snd ob) with
                                                   | Ext => [4 + 2 * fst ob + 1]
                                                   | _ => [4 + 2 * fst ob; 4 + 2 * fst ob + 1] end)%N (indexed o l)) /\
             forall r, In r (flat_map (fun ob : N * binding => match bchi (snd ob) with
                                                   | Ext => [4 + 2 * fst ob + 1]
                                                   | _ => [4 + 2 * fst ob; 4 + 2 * fst ob + 1] end)%N (indexed o l)) -> (4 + 2 * o <= r)%N).
  { induction l as [|b l IH]; intros o; cbn [indexed flat_map]; [split; [constructor|intros r []]|].
    destruct (IH (o + 1)%N) as [ND LB]. cbn [fst snd].
    split.
    - destruct (bchi b); cbn [app]; repeat constructor; auto; cbn [In]; intros H;
        repeat match goal with H : _ \/ _ |- _ => destruct H as [H|H] end; try lia;
        try (apply LB in H; lia).
    - intros r H. apply in_app_or in H as [H|H]; [|apply LB in H; lia].
      destruct (bchi b); cbn [In] in H; lia. }
  apply G.
Qed.
Theorem saved_nodup context : NoDup (snd (caller_save_registers_info context)).
Proof.
  rewrite info_shape. cbn [snd app].
  pose proof (ctx_regs_nodup context) as ND. pose proof (ctx_regs_range context) as RG.
  destruct (N.leb _ _); cbn [app]; repeat constructor; auto; cbn [In]; intros H;
    repeat match goal with H : _ \/ _ |- _ => destruct H as [H|H] end; try lia; try discriminate;
    try (apply RG in H; lia).
Qed.
Lemma saved_length context : (List.length (snd (caller_save_registers_info context)) <= 17)%nat.
Proof.
  rewrite info_shape. cbn [snd]. rewrite !app_length.
  assert (List.length (ctx_regs context) <= 14)%nat.
  { unfold ctx_regs. assert (L : (List.length (indexed 0 (firstn 7 context)) <= 7)%nat) by (rewrite indexed_length, firstn_length; lia).
    revert L. generalize (indexed 0 (firstn 7 context)). intros l. 
    assert (G : forall l : list (N * binding),
              (List.length (flat_map (fun ob : N * binding => match bchi (snd ob) with
                 | Ext => [CALLER_SAVE_FIRST + 2 * fst ob + 1]
                 | _ => [CALLER_SAVE_FIRST + 2 * fst ob; CALLER_SAVE_FIRST + 2 * fst ob + 1] end)%N l) <= 2 * List.length l)%nat).
    { induction l0 as [|[o b] l0 IH]; cbn [flat_map List.length]; [lia|]. rewrite app_length. cbn [snd]. destruct (bchi b); cbn [List.length]; lia. }
    specialize (G l). lia. }
  destruct (N.leb _ _); cbn [List.length]; lia.
Qed.
Theorem saved_link_register_iff context :
  In 29%N (snd (caller_save_registers_info context)) <->
  exists b, nth_error context 12 = Some b /\ temporary_from_position (2 * 12 + tnum_n Snd) = Ok (AR (X 29)).
Proof.
  rewrite info_shape. cbn [snd]. split.
  - intros H. apply in_app_or in H as [H|H]; [cbn in H; lia|].
    apply in_app_or in H as [H|H]; [|apply ctx_regs_range in H; lia].
    destruct (N.leb_spec 30 (2 * N.of_nat (List.length context) + 4)) as [Hc|Hc]; [|destruct H].
    destruct (nth_error context 12) as [b|] eqn:E.
    + exists b. split; reflexivity.
    + apply nth_error_None in E. lia.
  - intros (b & Hb & _). assert (12 < List.length context)%nat by (apply nth_error_Some; congruence).
    apply in_or_app; right. apply in_or_app; left.
    destruct (N.leb_spec 30 (2 * N.of_nat (List.length context) + 4)); [left; reflexivity|lia].
Qed.

(* the register list as it was computed BEFORE fix b8c7d78 (`>` instead of `>=`): with exactly 13
   live variables the second temporary of the 13th variable is X30, and X30 is NOT saved - so
   [saved_covers_live] is false of that code (and its proof above breaks in the case r = 29) *)
Definition info_before_fix (context : ctx) : list N :=
  let first_free_register := (2 * N.of_nat (List.length context) + RESERVED)%N in
  [0; 1]%N ++ (if N.ltb REGISTER_NUM first_free_register then [REGISTER_NUM - 1]%N else []) ++ ctx_regs context.
Example saved_covers_live_fails_before_fix :
  let context := repeat (mkb ("x"%string, 0%N) Ext I64) 13 in
  nth_error context 12 = Some (mkb ("x"%string, 0%N) Ext I64) /\
  temporary_from_position (2 * N.of_nat 12 + tnum_n Snd) = Ok (AR (X 29)) /\
  ~ In 29%N (info_before_fix context) /\
  In 29%N (snd (caller_save_registers_info context)).
Proof. vm_compute. repeat split; try tauto. intros H. repeat (destruct H as [H|H]; [discriminate|]). exact H. Qed.

(* every saved register is one the callee may clobber *)
Theorem saved_are_clobberable context r :
  In r (snd (caller_save_registers_info context)) -> (r <= 17)%N \/ r = 29%N.
Proof.
  rewrite info_shape. cbn [snd]. intros H. apply in_app_or in H as [H|H]; [cbn in H; lia|].
  apply in_app_or in H as [H|H]; [destruct (N.leb _ _); cbn in H; lia|apply ctx_regs_range in H; lia].
Qed.

(* the backup registers are callee-saved registers (X19-X29, never the link register) above every
   register of the context: the callee preserves them and no variable lives in them *)
Theorem backups_callee_saved_and_free context k :
  let '(fb, regs) := caller_save_registers_info context in
  (k < backup_used fb regs)%nat ->
  (18 <= fb + N.of_nat k <= 28)%N /\ (2 * N.of_nat (List.length context) + 4 <= fb + N.of_nat k)%N.
Proof.
  rewrite info_shape. unfold backup_used. change REGISTER_NUM with 30%N. intros H. lia.
Qed.

Theorem print_sp_safe newline s context d :
  d mod 16 = 0 -> sp_safe d (a_print newline s context) /\ sp_delta (a_print newline s context) = 0.
Proof.
  intros Hd. unfold a_print. destruct (caller_save_registers_info context) as [fb regs].
  set (pre := match s with AS _ => move_to_register TEMP s | AR _ => [] end).
  assert (PN : Forall sp_neutral pre).
  { subst pre. destruct s as [r|p]; [constructor|]. cbn [move_to_register]. constructor; [split; reflexivity|constructor]. }
  set (mv := match s with AR r => MOVR (X 0) r | AS _ => MOVR (X 0) TEMP end).
  assert (MN : sp_neutral mv) by (subst mv; destruct s; split; reflexivity).
  split.
  - apply sp_safe_app. split; [apply sp_safe_neutral; auto|]. rewrite (sp_delta_neutral _ PN), Z.add_0_r.
    apply sp_safe_app. split; [apply save_sp_safe; auto|].
    assert (D : (d + sp_delta (save_caller_save_registers fb regs)) mod 16 = 0).
    { rewrite <- Zplus_mod_idemp_r, save_caller_save_alignment, Z.add_0_r. exact Hd. }
    cbn [app sp_safe]. destruct MN as [M1 M2]. rewrite M2, Z.add_0_r.
    split; [destruct mv; cbn; discriminate || auto|]. split; [exact M1|].
    split; [intros _; exact D|]. split; [reflexivity|].
    cbn [sp_delta1]. rewrite Z.add_0_r. apply restore_sp_safe. exact Hd.
  - rewrite !sp_delta_app, (sp_delta_neutral _ PN). cbn [sp_delta fold_right]. fold (sp_delta (restore_caller_save_registers fb regs)).
    destruct MN as [_ M2]. rewrite M2. cbn [sp_delta1]. pose proof (save_restore_balanced fb regs). lia.
Qed.

Lemma move_arguments_neutral n : forall ma, move_arguments n = Ok ma -> Forall sp_neutral ma.
Proof.
  induction n as [|m IH]; cbn [move_arguments]; intros ma M.
  - injection M as <-. constructor.
  - destruct (Nat.ltb 7 (S m)); [discriminate|]. destruct (move_arguments m) as [r|]; cbn [rbind] in M; [|discriminate].
    injection M as <-. cbn [app]. constructor; [split; reflexivity|auto].
Qed.
Lemma setup_shape n cs :
  setup n = Ok cs ->
  exists tl, Forall sp_neutral tl /\
    cs = [STP_PRE_INDEX (X 18) (X 19) SP (-16); STP_PRE_INDEX (X 20) (X 21) SP (-16);
          STP_PRE_INDEX (X 22) (X 23) SP (-16); STP_PRE_INDEX (X 24) (X 25) SP (-16);
          STP_PRE_INDEX (X 26) (X 27) SP (-16); STP_PRE_INDEX (X 28) (X 29) SP (-16);
          SUBI SP SP SPILL_SPACE] ++ tl.
Proof.
  unfold setup, rbind. destruct (move_arguments n) as [ma|] eqn:M; [|discriminate].
  intros E; injection E as <-. exists (ma ++ [MOVR FREE HEAP; ADDI FREE FREE (field_offset Fst FIELDS_PER_BLOCK)]).
  split; [|reflexivity]. apply Forall_app; split; [eapply move_arguments_neutral; eauto|repeat constructor].
Qed.
(* SP = 0 (mod 16) on entry (AAPCS64) ==> every store of the prologue happens with SP aligned and
   SP = 0 (mod 16) in the body *)
Theorem body_alignment n cs : setup n = Ok cs -> sp_delta cs mod 16 = 0 /\ sp_safe 0 cs.
Proof.
  intros E. destruct (setup_shape n cs E) as (tl & TN & ->). split.
  - rewrite sp_delta_app, (sp_delta_neutral _ TN). reflexivity.
  - apply sp_safe_app. split; [cbn; repeat split; auto|]. apply sp_safe_neutral; [reflexivity|exact TN].
Qed.
Theorem prologue_epilogue_balanced n cs :
  setup n = Ok cs -> sp_delta cs + sp_delta cleanup = 0 /\ sp_safe (sp_delta cs) cleanup.
Proof.
  intros E. destruct (setup_shape n cs E) as (tl & TN & ->).
  rewrite sp_delta_app, (sp_delta_neutral _ TN). split; [reflexivity|]. cbn. repeat split; auto.
Qed.
(* the epilogue reloads exactly the register pairs the prologue stored, in reverse order; together
   they are the callee-saved registers X19-X29 and the link register X30 *)
Definition stp_pairs (c : acode) : list (areg * areg) := match c with STP_PRE_INDEX a b SP (-16) => [(a, b)] | _ => [] end.
Definition ldp_pairs (c : acode) : list (areg * areg) := match c with LDP_POST_INDEX a b SP 16 => [(a, b)] | _ => [] end.
Theorem epilogue_restores_callee_saved n cs :
  setup n = Ok cs ->
  flat_map ldp_pairs cleanup = rev (flat_map stp_pairs cs) /\
  flat_map (fun p => [fst p; snd p]) (flat_map stp_pairs cs) = map X [18; 19; 20; 21; 22; 23; 24; 25; 26; 27; 28; 29]%N.
Proof.
  intros E. destruct (setup_shape n cs E) as (tl & TN & ->).
  assert (Z0 : flat_map stp_pairs tl = []).
  { clear E. induction TN as [|c l [Ht Hd] _ IH]; [reflexivity|]. cbn [flat_map]. rewrite IH, app_nil_r.
    destruct c; try reflexivity. destruct b; try reflexivity. cbn in Hd. subst i. reflexivity. }
  rewrite flat_map_app, Z0. split; reflexivity.
Qed.
