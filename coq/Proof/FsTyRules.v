(* Proof/FsTyRules.v (C12) - the checker for focused Core (Sem/FsCheck.v, lookup by numeric id) read as
   typing rules, the clause loop as Forall.  Used to BUILD the typing derivation of the output of focusing:
   equivalences where the constructor has no nested lookup, the introduction direction only for xtor, xcase and call. *)
From Coq Require Import List ZArith NArith String Bool Lia.
From SCC Require Import Base.Sexp Lang.SynUtil Lang.CoreSyn Sem.FsCheck Proof.CoreTyRules.
Import ListNotations.
Open Scope list_scope.

Lemma flookup_id : forall G x b, flookup G x = Some b -> cid_id (cbvar b) = x.
Proof.
  induction G as [|b0 r IH]; simpl; intros x b H; [discriminate|].
  destruct (N.eqb (cid_id (cbvar b0)) x) eqn:E; [|apply IH; exact H].
  injection H as H. subst. apply N.eqb_eq. exact E.
Qed.
Lemma flookup_In : forall G x b, flookup G x = Some b -> In b G.
Proof.
  induction G as [|b0 r IH]; simpl; intros x b H; [discriminate|].
  destruct (N.eqb (cid_id (cbvar b0)) x); [injection H as H; left; exact H | right; eapply IH; exact H].
Qed.
Lemma flookup_cons : forall b0 G x,
  flookup (b0 :: G) x = if N.eqb (cid_id (cbvar b0)) x then Some b0 else flookup G x.
Proof. reflexivity. Qed.
Lemma flookup_app : forall A G x,
  flookup (A ++ G) x = match flookup A x with Some b => Some b | None => flookup G x end.
Proof.
  induction A as [|b0 r IH]; simpl; intros G x; [reflexivity|].
  destruct (N.eqb (cid_id (cbvar b0)) x); [reflexivity | apply IH].
Qed.
Lemma flookup_none : forall G x, flookup G x = None <-> ~ In x (cids G).
Proof.
  induction G as [|b0 r IH]; simpl; intros x; [tauto|].
  destruct (N.eqb (cid_id (cbvar b0)) x) eqn:E.
  - apply N.eqb_eq in E. split; [discriminate | intros H; exfalso; apply H; left; exact E].
  - apply N.eqb_neq in E. rewrite IH. tauto.
Qed.
Lemma flookup_nodup : forall G b, NoDup (cids G) -> In b G -> flookup G (cid_id (cbvar b)) = Some b.
Proof.
  induction G as [|b0 r IH]; simpl; intros b Hnd Hin; [contradiction|].
  inversion Hnd as [|? ? Hn Hnd']; subst.
  destruct Hin as [->|Hin]; [rewrite N.eqb_refl; reflexivity|].
  destruct (N.eqb (cid_id (cbvar b0)) (cid_id (cbvar b))) eqn:E; [|apply IH; assumption].
  apply N.eqb_eq in E. exfalso. apply Hn. rewrite E. apply (in_map (fun b => cid_id (cbvar b))). exact Hin.
Qed.

Lemma fbound_iff : forall G x c t, fbound G x c t = None <->
  exists b, flookup G (cid_id x) = Some b /\ cbchi b = c /\ cbty b = t.
Proof.
  intros G x c t. unfold fbound. destruct (flookup G (cid_id x)) as [b|] eqn:E.
  - rewrite fens, andb_true_iff, ceq_chi, ceq_ty. split.
    + intros [H1 H2]. exists b. auto.
    + intros [b' [H [H1 H2]]]. injection H as <-. auto.
  - split; [discriminate | intros [b [H _]]; discriminate].
Qed.
Lemma fbound_bound : forall G b, flookup G (cid_id (cbvar b)) = Some b -> fbound G (cbvar b) (cbchi b) (cbty b) = None.
Proof. intros G b H. apply fbound_iff. exists b. auto. Qed.

(* arguments that are bound and have the kinds and types of the signature *)
Definition farg_ok (G : cctx) (a s : cbinding) : Prop :=
  cbchi a = cbchi s /\ cbty a = cbty s /\ flookup G (cid_id (cbvar a)) = Some a.
Lemma fargs_ok_intro : forall what G args sig, Forall2 (farg_ok G) args sig -> fargs_ok what G args sig = None.
Proof.
  intros what G args sig H. induction H as [|a s ar sr [H1 [H2 H3]] Hr IH]; simpl; [reflexivity|].
  apply seqn. split.
  - apply fens. unfold csame_sig. rewrite H1, H2, ceq_chi_refl, ceq_ty_refl. reflexivity.
  - apply seqn. split; [apply fbound_bound; exact H3 | exact IH].
Qed.

Section Rules.
Variables (data codata : list ctydecl) (defs : list fsdef).
Notation kt := (check_term data codata defs).
Notation ks := (check_stmt data codata defs).

Definition fclause_typed (G : cctx) (cl : fsclause) : Prop :=
  match cl with FsClause _ _ ctx body => ks (ctx ++ G) body = None end.
Definition fclauses_loop (G : cctx) : list fsclause -> option string :=
  fix go (cls : list fsclause) {struct cls} : option string :=
    match cls with
    | [] => None
    | FsClause _ _ ctx body :: cr => match ks (ctx ++ G) body with None => go cr | Some e => Some e end
    end.
Lemma fclauses_loop_iff : forall G cls, fclauses_loop G cls = None <-> Forall (fclause_typed G) cls.
Proof.
  intros G. induction cls as [|[c x ctx body] cr IH]; simpl.
  - split; [constructor | reflexivity].
  - rewrite seqn, IH. split.
    + intros [H1 H2]. constructor; assumption.
    + intros H. inversion H; subst. split; assumption.
Qed.

Lemma kt_var : forall G side ty c v t',
  kt G side ty (FsXVar c v t') = None <->
  c = side /\ t' = ty /\ exists b, flookup G (cid_id v) = Some b /\ cbchi b = side /\ cbty b = ty.
Proof.
  intros. cbn [check_term]. apply seq_iff; [apply fens_chi|]. apply seq_iff; [apply fens_ty | apply fbound_iff].
Qed.
Lemma kt_lit : forall G side ty n, kt G side ty (FsLit n) = None <-> side = CPrd /\ ty = CI64.
Proof. intros. cbn [check_term]. apply seq_iff; [apply fens_chi | apply fens_ty]. Qed.
Lemma kt_op : forall G side ty a o b,
  kt G side ty (FsOp a o b) = None <->
  side = CPrd /\ ty = CI64 /\ fbound G a CPrd CI64 = None /\ fbound G b CPrd CI64 = None.
Proof.
  intros. cbn [check_term]. apply seq_iff; [apply fens_chi|]. apply seq_iff; [apply fens_ty|].
  apply seq_iff; reflexivity.
Qed.
Lemma kt_mu : forall G side ty c v s t',
  kt G side ty (FsMu c v s t') = None <-> c = side /\ t' = ty /\ ks (mkcb v (opp side) ty :: G) s = None.
Proof.
  intros. cbn [check_term]. apply seq_iff; [apply fens_chi|]. apply seq_iff; [apply fens_ty | reflexivity].
Qed.

Definition fxdecls (side : cchi) : list ctydecl := match side with CPrd => data | CCns => codata end.
Definition fcdecls (side : cchi) : list ctydecl := match side with CPrd => codata | CCns => data end.

Lemma kt_xtor_intro : forall G side ty x args n d sg,
  ty = CDecl n -> find_decl (fxdecls side) n = Some d -> find_cxtor d x = Some sg ->
  Forall2 (farg_ok G) args (cxargs sg) ->
  kt G side ty (FsXtor side x args ty) = None.
Proof.
  intros G side ty x args n d sg -> Hd Hs Ha. cbn [check_term].
  apply seqn. split; [apply fens; apply ceq_chi_refl|]. apply seqn. split; [apply fens; apply ceq_ty_refl|].
  fold (fxdecls side). rewrite Hd, Hs. apply fargs_ok_intro. exact Ha.
Qed.
Lemma kt_xcase_intro : forall G side ty cls n d,
  ty = CDecl n -> find_decl (fcdecls side) n = Some d ->
  clauses_match side n cls (ctxtors d) = None -> Forall (fclause_typed G) cls ->
  kt G side ty (FsXCase side cls ty) = None.
Proof.
  intros G side ty cls n d -> Hd Hm Hc. cbn [check_term].
  apply seqn. split; [apply fens; apply ceq_chi_refl|]. apply seqn. split; [apply fens; apply ceq_ty_refl|].
  fold (fcdecls side). rewrite Hd. apply seqn. split; [exact Hm|]. apply fclauses_loop_iff. exact Hc.
Qed.

Lemma ks_cut : forall G p ty k,
  ks G (FsCut p ty k) = None <-> ty_ok data codata ty = true /\ kt G CPrd ty p = None /\ kt G CCns ty k = None.
Proof. intros. cbn [check_stmt]. apply seq_iff; [apply fens|]. apply seq_iff; reflexivity. Qed.
Lemma ks_ifc : forall G so a b t e,
  ks G (FsIfC so a b t e) = None <->
  fbound G a CPrd CI64 = None /\ match b with Some b' => fbound G b' CPrd CI64 = None | None => True end /\
  ks G t = None /\ ks G e = None.
Proof.
  intros. cbn [check_stmt]. apply seq_iff; [reflexivity|]. apply seq_iff; [|apply seq_iff; reflexivity].
  destruct b; [reflexivity | split; trivial].
Qed.
Lemma ks_print : forall G nl a next, ks G (FsPrint nl a next) = None <-> fbound G a CPrd CI64 = None /\ ks G next = None.
Proof. intros. cbn [check_stmt]. apply seq_iff; reflexivity. Qed.
Lemma ks_call_intro : forall G f args d,
  find (fun d => cident_eqb (fsdname d) f) defs = Some d -> Forall2 (farg_ok G) args (fsdctx d) ->
  ks G (FsCall f args) = None.
Proof. intros G f args d Hd Ha. cbn [check_stmt]. rewrite Hd. apply fargs_ok_intro. exact Ha. Qed.
Lemma ks_exit : forall G v, ks G (FsExit v) = None <-> fbound G v CPrd CI64 = None.
Proof. intros. reflexivity. Qed.
End Rules.
