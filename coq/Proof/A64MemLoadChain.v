(* C09 on AArch64, loads: `a_load` of any number of variables (objects chained over several blocks, memory.rs
   load_fields with the TEMPORARY_TEMP = X10 evacuation, load_register with the header test) refines
   `Heap.load_object (nlinks n) p` on the AArch64 ISA semantics.
     a64_lf_blk_ok        one block, the block pointer in a register or in a spill slot (then X10 is evacuated to
                          SPILL_TEMP = slot 0 once and restored after the last block);
     a64_load_fields_ok   the recursion of load_fields against the abstract walk `lf_abs` in emission order; what a
                          stretch of the walk leaves alone is `walk_frame`, composed by `walk_frame_trans`;
     a64_load_walk_last   one call of load_fields by load_register, begun after the header test (Release) or after the
                          decrement (Share); its postcondition `loaded` is also that of the theorems below;
     a64_load_walk_full   a_load = header test, then the Release walk or decrement + the Share walk;
     a64_load_full        a_load = Heap.load_object (nlinks n) p; `loaded` there says: the variables below the loaded
                          ones (X10 included), the output and FREE unchanged, `nonblk_same`, HEAP defined, `stack_frame`.
   Differences to x86-64 (Proof/X86MemLoadChain.v): TEMPORARY_TEMP is X10 = `tpos 6` (the first
   temporary of variable 3), spill slots begin at position 26; Share-mode code clobbers TEMP2 = X3; the header is
   read into TEMP2 and tested by CMP #0 on the 64-bit value, decremented by SUBI/STR through TEMP2.
   The abstract walk (`lf_ptr`, `lf_abs`, `lf_ok`, `lf_addrs`, `lf_share_ok`, `lf_ext`, `lf_abs_release_load_object`,
   `lf_abs_share_load_object`) is that of Proof/X86MemLoadChain.v, instantiated with the word function `hword s` of
   the AArch64 state. *)
From Coq Require Import List ZArith NArith String Bool Lia FMapPositive.
From SCC Require Import Base.Sexp Lang.AxSyn Sem.AxSem Model.Backend Model.A64 Sem.A64Sem Generated.Constants
     Proof.A64State Proof.A64Exec Proof.A64MemSubst Proof.A64Mem Proof.A64MemLoad.
From SCC Require Model.Heap Model.X86 Sem.X86Sem Proof.X86Mem Proof.X86MemFrame Proof.X86MemStore Proof.X86MemStoreChain
     Proof.X86MemLoad Proof.X86MemLoadChain Proof.X86MemLoadFull Proof.X86HeapDefs Proof.HeapMore Proof.A64MemTop.
Import ListNotations.
Open Scope list_scope.
Open Scope Z_scope.

Notation rest_len := X86MemStoreChain.rest_len.
Notation lf_ptr := X86MemLoadChain.lf_ptr.
Notation lf_abs := X86MemLoadChain.lf_abs.
Notation lf_ok := X86MemLoadChain.lf_ok.
Notation blk_addrs := X86MemLoadChain.blk_addrs.
Notation lf_addrs := X86MemLoadChain.lf_addrs.
Notation lf_share_ok := X86MemLoadChain.lf_share_ok.
Notation XLast := X86.Last.

(* the abstract walk, unfolded once, in the vocabulary of Model/A64.v *)
Lemma lf_unfold f m w tl bp p : tl <> [] ->
  let cap := (3 - bp_n bp)%N in
  let rl := rest_len (List.length tl) cap in
  let rest := firstn rl tl in
  let next := skipn rl tl in
  let q := lf_ptr f w rest (xbp Other) p in
  lf_ptr (S f) w tl (xbp bp) p = w (q + 48) /\
  (forall a, lf_abs (S f) (xm m) w tl (xbp bp) p a = blk_abs (xm m) w next q cap (lf_abs f (xm m) w rest (xbp Other) p a)) /\
  (lf_ok (S f) (xm m) w tl (xbp bp) p -> lf_ok f (xm m) w rest (xbp Other) p /\ is_blk q /\ lv_kids (xm m) w (rev next) q cap) /\
  lf_addrs (S f) w tl (xbp bp) p = lf_addrs f w rest (xbp Other) p ++ blk_addrs q cap.
Proof.
  destruct tl as [|x r]; [contradiction|]. intros _. destruct bp; cbv zeta; (split; [reflexivity|split; [intros a; reflexivity|split; [intros H; exact H|reflexivity]]]).
Qed.

(* the logical contents of TEMPORARY_TEMP: in the register, or evacuated to SPILL_TEMP *)
Definition saved (s : astate) (sp : Z) (freed : bool) : option Z :=
  if freed then sget s sp SPILL_TEMP else rget s TEMPORARY_TEMP.
Definition lgetL (s : astate) (sp : Z) (freed : bool) (l : atemp) : option Z :=
  if atemp_eqb l (AR TEMPORARY_TEMP) then saved s sp freed else lget s sp l.
Lemma atemp_eqb_refl' a b : reflect (a = b) (atemp_eqb a b). Proof. apply atemp_eqb_spec. Qed.
Lemma lgetL_other s sp freed l : l <> AR TEMPORARY_TEMP -> lgetL s sp freed l = lget s sp l.
Proof. intros H. unfold lgetL. destruct (atemp_eqb_refl' l (AR TEMPORARY_TEMP)); [contradiction|reflexivity]. Qed.
Lemma lgetL_tt s sp freed : lgetL s sp freed (AR TEMPORARY_TEMP) = saved s sp freed.
Proof. unfold lgetL. destruct (atemp_eqb_refl' (AR TEMPORARY_TEMP) (AR TEMPORARY_TEMP)); [reflexivity|contradiction]. Qed.
Lemma lgetL_false s sp l : lgetL s sp false l = lget s sp l.
Proof. unfold lgetL, saved. destruct (atemp_eqb_refl' l (AR TEMPORARY_TEMP)) as [->|]; reflexivity. Qed.
Lemma tpos_tt k : tpos k = AR TEMPORARY_TEMP -> k = 6%N.
Proof. intros H. apply tpos_reg in H as [H _]. change TEMPORARY_TEMP with (X 10) in H. inversion H. lia. Qed.
Lemma tpos_not_tt k : k <> 6%N -> tpos k <> AR TEMPORARY_TEMP.
Proof. intros Hk H. apply tpos_tt in H. contradiction. Qed.
Lemma tpos_6 : tpos 6 = AR TEMPORARY_TEMP. Proof. reflexivity. Qed.

Definition blk_reg_of (t : atemp) : areg := match t with AR r => r | AS _ => TEMPORARY_TEMP end.
Definition lf_blk_code (t : atemp) (freed0 : bool) (bp : block_position) (m : load_mode) (klink : N) (lv : list acode) : list acode :=
  match t with
  | AR mr => rel_code m mr ++ link_load_code bp klink mr ++ lv
  | AS mp => ((if freed0 then [] else [STR TEMPORARY_TEMP SP (stack_offset SPILL_TEMP)]) ++ [LDR TEMPORARY_TEMP SP (stack_offset mp)]) ++
             (rel_code m TEMPORARY_TEMP ++ link_load_code bp klink TEMPORARY_TEMP ++ lv) ++
             (match bp with Last => [LDR TEMPORARY_TEMP SP (stack_offset SPILL_TEMP)] | Other => [] end)
  end.
Definition freed_after (t : atemp) (freed0 : bool) (bp : block_position) : bool :=
  match t with AR _ => freed0 | AS _ => match bp with Last => false | Other => true end end.
Definition untouched (l : atemp) : Prop := loc_ok l /\ l <> AR TEMP /\ l <> AR TEMP2 /\ l <> AR HEAP /\ l <> AS SPILL_TEMP.

Lemma tpos_untouched k : (k < MAXPOS)%N -> untouched (tpos k).
Proof.
  intros Hk. destruct (tpos_not_reserved k) as (U1 & _ & U3 & U4 & U5 & _).
  split; [now apply tpos_loc_ok|]. auto.
Qed.

Lemma snd_after_fst q j : q + field_offset Fst j + 8 = q + field_offset Snd j.
Proof. rewrite !field_offset_val. cbn [tnum_n]. lia. Qed.

(* reading from the end of two concatenated lists: the last n entries of A ++ B, of which the first rl lie in A *)
Lemma nth_app_last (A B : list Z) n rl i :
  rl = (n - List.length B)%nat -> (rl <= List.length A)%nat -> (i < n)%nat ->
  nth (List.length (A ++ B) - n + i) (A ++ B) 0 =
    if (i <? rl)%nat then nth (List.length A - rl + i) A 0 else nth (List.length B - (n - rl) + (i - rl)) B 0.
Proof.
  intros Hrl HA Hi. rewrite app_length. destruct (Nat.ltb_spec i rl).
  - rewrite app_nth1 by lia. f_equal. lia.
  - rewrite app_nth2 by lia. f_equal. lia.
Qed.

Section LoadChain.
Variable im : image.

(* evacuate (once) and fetch the pointer.
   SEEDED DEFECT (register_freed carried over from the Release call of load_fields into the Share call of
   load_register): the Share branch would start with freed0 = true although X10 still holds its variable and
   slot SPILL_TEMP holds garbage; then `saved s sp true` = the stale slot, not the value of X10, so the
   hypothesis `lgetL s sp freed0 ... ` of the walk would speak about the wrong value and the conclusion
   `lgetL s' sp false l = lgetL s sp freed0 l` for l = AR X10 would give the stale slot, not X10's old value. *)
Lemma a64_fetch_block_ptr pos (freed0 : bool) mp s sp p :
  let c := (if freed0 then [] else [STR TEMPORARY_TEMP SP (stack_offset SPILL_TEMP)]) ++ [LDR TEMPORARY_TEMP SP (stack_offset mp)] in
  code_at im pos c -> frame_ok s sp -> slot_ok mp -> SPILL_TEMP <> mp -> sget s sp mp = Some p ->
  exists sA, exec_to im pos s (padd pos (List.length c)) sA /\
     rget sA TEMPORARY_TEMP = Some p /\ sget sA sp SPILL_TEMP = saved s sp freed0 /\
     (forall l, l <> AR TEMPORARY_TEMP -> l <> AS SPILL_TEMP -> loc_ok l -> lget sA sp l = lget s sp l) /\
     (forall a, hword sA a = hword s a) /\ out sA = out s /\ frame_ok sA sp /\ stack_frame s sA sp.
Proof.
  intros c HC1 FR LKt Nmp P. subst c. assert (SPk : sp_ok sp) by apply FR.
  assert (Q0 : slot_ok SPILL_TEMP) by (unfold slot_ok; reflexivity).
  destruct freed0; cbn [app List.length saved] in *.
  - exists (rset s TEMPORARY_TEMP (Some p)). split; [|split; [|split; [|split; [|split; [|split; [|split]]]]]].
    + nxt HC1 0%nat. { rewrite (step_LDR_slot im s sp FR) by exact LKt. rewrite P. reflexivity. } apply exec_refl.
    + apply rget_rset_same. exact I.
    + apply sget_rset.
    + intros [r|q] N1 N2 L; cbn [lget]; [apply rget_rset_other; congruence|apply sget_rset].
    + intros a. apply hword_rset.
    + apply out_rset.
    + apply frame_ok_rset; [discriminate|exact FR].
    + apply stack_frame_eq, stack_rset.
  - set (s1 := sset s sp SPILL_TEMP (rget s TEMPORARY_TEMP)).
    assert (F1 : frame_ok s1 sp) by (apply frame_ok_sset; exact FR).
    exists (rset s1 TEMPORARY_TEMP (Some p)). split; [|split; [|split; [|split; [|split; [|split; [|split]]]]]].
    + nxt HC1 0%nat. { apply (step_STR_slot im s sp FR). exact Q0. }
      nxt HC1 1%nat. { rewrite (step_LDR_slot im s1 sp F1) by exact LKt. unfold s1 at 2. rewrite sget_sset_other by auto. rewrite P. reflexivity. }
      apply exec_refl.
    + apply rget_rset_same. exact I.
    + rewrite sget_rset. unfold s1. apply sget_sset_same.
    + intros [r|q] N1 N2 L; cbn [lget loc_ok] in *.
      * rewrite rget_rset_other by congruence. apply rget_sset.
      * rewrite sget_rset. unfold s1. apply sget_sset_other; auto. congruence.
    + intros a. rewrite hword_rset. reflexivity.
    + rewrite out_rset. reflexivity.
    + apply frame_ok_rset; [discriminate|exact F1].
    + apply (stack_frame_trans s s1); [apply stack_frame_sset; exact Q0|apply stack_frame_eq, stack_rset].
Qed.

(* after the last block X10 is restored from slot SPILL_TEMP; after the others it stays evacuated *)
Lemma a64_restore_temp pos bp s2 sp v :
  let c := match bp with Last => [LDR TEMPORARY_TEMP SP (stack_offset SPILL_TEMP)] | Other => [] end in
  code_at im pos c -> frame_ok s2 sp -> sget s2 sp SPILL_TEMP = v ->
  exists s3, exec_to im pos s2 (padd pos (List.length c)) s3 /\
    saved s3 sp (match bp with Last => false | Other => true end) = v /\
    (forall l, l <> AR TEMPORARY_TEMP -> lget s3 sp l = lget s2 sp l) /\
    (forall a, hword s3 a = hword s2 a) /\ rget s3 HEAP = rget s2 HEAP /\ rget s3 FREE = rget s2 FREE /\ out s3 = out s2 /\
    frame_ok s3 sp /\ stack_frame s2 s3 sp.
Proof.
  intros c HC3 FR2 S20. subst c. assert (Q0 : slot_ok SPILL_TEMP) by (unfold slot_ok; reflexivity).
  destruct bp; cbn [List.length padd saved].
  - exists (rset s2 TEMPORARY_TEMP (sget s2 sp SPILL_TEMP)). split; [|split; [|split; [|split; [|split; [|split; [|split; [|split]]]]]]].
    + eapply exec_next; [apply (HC3 0%nat); reflexivity| |apply exec_refl]. apply (step_LDR_slot im s2 sp FR2). exact Q0.
    + rewrite rget_rset_same by exact I. exact S20.
    + intros [r|q] N1; cbn [lget]; [apply rget_rset_other; congruence|apply sget_rset].
    + intros a. apply hword_rset.
    + apply rget_rset_other. discriminate.
    + apply rget_rset_other. discriminate.
    + apply out_rset.
    + apply frame_ok_rset; [discriminate|exact FR2].
    + apply stack_frame_eq, stack_rset.
  - exists s2. split; [apply exec_refl|]. split; [exact S20|]. split; [intros; reflexivity|]. split; [intros; reflexivity|].
    split; [reflexivity|]. split; [reflexivity|]. split; [reflexivity|]. split; [exact FR2|apply stack_frame_refl].
Qed.

(* freed0 says whether X10 has been evacuated to slot SPILL_TEMP by an earlier block of this call of load_fields: only
   then may the code skip the evacuation; the logical value of X10 (`lgetL ... (AR TEMPORARY_TEMP)` = `saved`) is
   preserved by every block and is back in the register after the last one. *)
Lemma a64_lf_blk_ok pos bp next epr m lc lv lc' freed0 klink s sp p h F :
  let t := tpos (2 * N.of_nat (List.length epr)) in
  load_values (rev next) epr (blk_reg_of t) (3 - bp_n bp) m lc = Ok (lv, lc') ->
  next <> [] -> (N.of_nat (List.length next) <= 3 - bp_n bp)%N ->
  klink = (2 * N.of_nat (List.length epr + List.length next))%N ->
  (2 * N.of_nat (List.length epr) < MAXPOS)%N -> (bp = Other -> (klink < MAXPOS)%N) ->
  code_at im pos (lf_blk_code t freed0 bp m klink lv) -> labels_at im pos (lf_blk_code t freed0 bp m klink lv) -> frame_ok s sp ->
  (freed0 = true -> (26 <= 2 * N.of_nat (List.length epr))%N) ->
  lgetL s sp freed0 t = Some p -> is_blk p -> rget s HEAP = Some h ->
  lv_kids (xm m) (hword s) (rev next) p (3 - bp_n bp) ->
  (m = Share -> forall x, is_blk x -> min_int <= hword s x /\ hword s x + Z.of_nat (List.length next) <= max_int) ->
  let freed1 := freed_after t freed0 bp in
  exists s', exec_to im pos s (padd pos (List.length (lf_blk_code t freed0 bp m klink lv))) s' /\
    st_eqB (abs_heap F s') (blk_abs (xm m) (hword s) next p (3 - bp_n bp) (abs_heap F s)) /\
    (bp = Other -> lgetL s' sp freed1 (tpos klink) = Some (hword s (p + 48))) /\
    (forall i b, nth_error next i = Some b ->
       lgetL s' sp freed1 (tpos (2 * N.of_nat (List.length epr + i) + 1)) =
         Some (hword s (p + field_offset Snd (3 - bp_n bp - N.of_nat (List.length next) + N.of_nat i))) /\
       (bchi b <> Ext -> lgetL s' sp freed1 (tpos (2 * N.of_nat (List.length epr + i))) =
         Some (hword s (p + field_offset Fst (3 - bp_n bp - N.of_nat (List.length next) + N.of_nat i))))) /\
    (forall l, untouched l -> (forall k, (2 * N.of_nat (List.length epr) <= k <= klink)%N -> l <> tpos k) ->
       lgetL s' sp freed1 l = lgetL s sp freed0 l) /\
    walk_frame m (List.length next) s s' sp.
Proof.
  intros t Hlv Hne Hlen Hkl Kt Hklm HC HL FR Hfr P Hb Hh Kids Room freed1.
  set (Eb := List.length epr) in *.
  assert (Hn1 : (1 <= List.length next)%nat) by (destruct next; [contradiction|cbn; lia]).
  destruct (tpos_not_reserved (2 * N.of_nat Eb)) as (NH & _ & NT & NT2 & _).
  pose proof (tpos_loc_ok _ Kt) as LKt.
  unfold freed1. clear freed1. subst t. destruct (tpos (2 * N.of_nat Eb)) as [mr|mp] eqn:Et; cbn [blk_reg_of lf_blk_code freed_after loc_ok] in *.
  - (* the pointer in a register *)
    assert (Hf0 : freed0 = false).
    { destruct freed0; [|reflexivity]. specialize (Hfr eq_refl). apply tpos_reg in Et as [_ Hlt]. lia. }
    subst freed0. rewrite lgetL_false in P. cbn [lget] in P.
    destruct (a64_load_block_ok im pos bp next epr m lc lv lc' mr klink s sp p h F Hlv Hne Hlen Hkl Hklm HC HL FR LKt P Hb Hh)
      as (s2 & ST & EQ & Vl & V & Oth & Fr2); auto; try congruence.
    { intros k Hk. rewrite <- Et. apply tpos_neq. fold Eb in Hk. lia. }
    exists s2. split; [exact ST|]. split; [exact EQ|].
    split; [intros Ho; rewrite lgetL_false; auto|]. split; [intros i b Hi; rewrite !lgetL_false; auto|].
    split; [|exact Fr2]. intros l (L1 & L2 & L3 & L4 & L5) Hr. rewrite !lgetL_false. now apply Oth.
  - (* the pointer in a spill slot *)
    destruct (tpos_slot _ _ Et) as (Emp & HE).
    rewrite lgetL_other in P by discriminate. cbn [lget] in P.
    assert (Q0 : slot_ok SPILL_TEMP) by (unfold slot_ok; reflexivity).
    assert (Nmp : SPILL_TEMP <> mp) by (change SPILL_TEMP with 0%N; lia).
    apply code_at_app2 in HC as [HC1 HC2]. apply labels_at_app2 in HL as [_ HL2].
    apply code_at_app2 in HC2 as [HC2 HC3]. apply labels_at_app2 in HL2 as [HL2 _].
    destruct (a64_fetch_block_ptr pos freed0 mp s sp p HC1 FR LKt Nmp P) as (sA & STA & RA & SvA & OthA & WA & OA & FRA & SFA).
    assert (HA : rget sA HEAP = rget s HEAP) by (apply (OthA (AR HEAP)); [discriminate|discriminate|exact I]).
    assert (FA : rget sA FREE = rget s FREE) by (apply (OthA (AR FREE)); [discriminate|discriminate|exact I]).
    assert (KidsA : lv_kids (xm m) (hword sA) (rev next) p (3 - bp_n bp)).
    { eapply X86MemLoad.lv_kids_congr; [|rewrite rev_length; exact Hlen|exact Kids]. intros j Hj. now rewrite WA. }
    destruct (a64_load_block_ok im _ bp next epr m lc lv lc' TEMPORARY_TEMP klink sA sp p h F Hlv Hne Hlen Hkl Hklm HC2 HL2 FRA I RA Hb)
      as (s2 & ST & EQ & Vl & V & Oth & Fr2); auto; try discriminate.
    { now rewrite HA. }
    { intros k Hk. apply not_eq_sym, tpos_not_tt. lia. }
    { intros Hm x Hx. rewrite WA. now apply Room. }
    assert (S20 : sget s2 sp SPILL_TEMP = saved s sp freed0).
    { change (lget s2 sp (AS SPILL_TEMP) = saved s sp freed0). rewrite Oth; [exact SvA|exact Q0|discriminate|discriminate|discriminate|].
      intros k _. apply not_eq_sym, tpos_not_reserved. }
    assert (Hspill : forall k, (2 * N.of_nat Eb <= k)%N -> tpos k <> AR TEMPORARY_TEMP) by (intros k Hk; apply tpos_not_tt; lia).
    pose proof Fr2 as (_ & _ & HH2 & _ & FR2 & _).
    destruct (a64_restore_temp _ bp s2 sp _ HC3 FR2 S20) as (s3 & ST3 & Sv3 & Oth3 & W3 & H3 & F3 & O3 & FR3 & SF3).
    exists s3. split; [|split; [|split; [|split; [|split]]]].
    + eapply exec_app_len; [exact STA|]. eapply exec_app_len; [exact ST|exact ST3].
    + eapply st_eqB_trans; [apply abs_heap_eqB; [exact W3|exact H3|exact F3]|]. eapply st_eqB_trans; [exact EQ|].
      apply X86MemLoadChain.blk_abs_congr; [apply abs_heap_eqB; [exact WA|exact HA|exact FA]|intros j _; apply WA|exact Hb|exact Hlen|exact KidsA].
    + intros Ho. rewrite lgetL_other by (apply Hspill; lia). rewrite Oth3 by (apply Hspill; lia). rewrite <- WA. exact (Vl Ho).
    + intros i b Hi. destruct (V i b Hi) as [A B]. rewrite !WA in A, B.
      rewrite !lgetL_other by (apply Hspill; fold Eb; lia). rewrite !Oth3 by (apply Hspill; fold Eb; lia). auto.
    + intros l (L1 & L2 & L3 & L4 & L5) Hr. destruct (atemp_eqb_refl' l (AR TEMPORARY_TEMP)) as [->|Hl].
      * rewrite !lgetL_tt. exact Sv3.
      * rewrite !lgetL_other by exact Hl. rewrite Oth3 by exact Hl. rewrite Oth by auto. apply OthA; auto.
    + (* nothing but the walk of the block touches the heap, the output or the stack outside the frame *)
      apply (walk_frame_trans m 0 (List.length next) _ s sA s3); [lia|apply walk_frame_same; eauto; rewrite HA; eauto|].
      apply (walk_frame_trans m (List.length next) 0 _ sA s2 s3); [lia|exact Fr2|].
      apply walk_frame_same; auto. now rewrite H3.
Qed.

Lemma load_values_pos bsrev : forall epr R ff m lc lv lc',
  load_values bsrev epr R ff m lc = Ok (lv, lc') -> bsrev <> [] ->
  (2 * N.of_nat (List.length epr + List.length bsrev) < MAXPOS + 1)%N.
Proof.
  destruct bsrev as [|b rest]; intros epr R ff m lc lv lc' H Hne; [contradiction|].
  cbn [load_values] in H.
  destruct (load_value b (epr ++ rev rest) R (ff - 1) m lc) as [[c1 lc1]|] eqn:E1; [|discriminate].
  destruct (load_value_shape _ _ _ _ _ _ _ _ E1) as (K & _). rewrite app_length, rev_length in K. cbn [List.length]. lia.
Qed.

Lemma load_fields_unfold fuel to_load existing bp m freed lc cs fr lc' :
  to_load <> [] -> load_fields (S fuel) to_load existing bp m freed lc = Ok (cs, fr, lc') ->
  let rl := rest_len (List.length to_load) (3 - bp_n bp) in
  let epr := existing ++ firstn rl to_load in
  let t := tpos (2 * N.of_nat (List.length epr)) in
  let klink := (2 * N.of_nat (List.length (existing ++ to_load)))%N in
  exists c0 freed0 lc0 lv,
    load_fields fuel (firstn rl to_load) existing Other m freed lc = Ok (c0, freed0, lc0) /\
    (2 * N.of_nat (List.length epr) < MAXPOS)%N /\
    (bp = Other -> (klink < MAXPOS)%N) /\
    load_values (rev (skipn rl to_load)) epr (blk_reg_of t) (3 - bp_n bp) m lc0 = Ok (lv, lc') /\
    cs = c0 ++ lf_blk_code t freed0 bp m klink lv /\
    fr = match t with AR _ => freed0 | AS _ => true end.
Proof.
  intros Hne H rl epr t klink. cbn [load_fields] in H. destruct to_load as [|x r]; [contradiction|].
  change (FIELDS_PER_BLOCK - bp_n bp)%N with (3 - bp_n bp)%N in H.
  fold (rest_len (List.length (x :: r)) (3 - bp_n bp)) in H. fold rl in H. fold epr in H.
  destruct (load_fields fuel (firstn rl (x :: r)) existing Other m freed lc) as [[[c0 freed0] lc0]|] eqn:E0; [|discriminate].
  cbn [rbind] in H.
  destruct (a_fresh Fst epr) as [t'|] eqn:Et; [|discriminate]. cbn [rbind] in H.
  apply a_fresh_tpos in Et as [-> Hk]. cbn [tnum_n] in *. rewrite N.add_0_r in *. fold t in H.
  exists c0, freed0, lc0.
  assert (Hlink : forall R c2, (match bp with Other => load_field Fst (existing ++ x :: r) R (FIELDS_PER_BLOCK - 1) | Last => Ok [] end) = Ok c2 ->
            c2 = link_load_code bp klink R /\ (bp = Other -> (klink < MAXPOS)%N)).
  { intros R c2 Hc. destruct bp; cbn [link_load_code].
    - inversion Hc. split; [reflexivity|discriminate].
    - change (FIELDS_PER_BLOCK - 1)%N with 2%N in Hc. apply load_field_shape in Hc as [K ->]. cbn [tnum_n] in *. rewrite N.add_0_r in *.
      split; [reflexivity|intros _; exact K]. }
  destruct t as [mr|mp] eqn:Etp; cbn [blk_reg_of lf_blk_code].
  - destruct (match bp with Other => load_field Fst (existing ++ x :: r) mr (FIELDS_PER_BLOCK - 1) | Last => Ok [] end) as [c2|] eqn:E2; [|discriminate].
    cbn [rbind] in H. destruct (Hlink _ _ E2) as [-> HK].
    destruct (load_values (rev (skipn rl (x :: r))) epr mr (3 - bp_n bp) m lc0) as [[c3 lc3]|] eqn:E3; [|discriminate]. cbn [rbind] in H.
    inversion H; subst. exists c3. split; [reflexivity|]. split; [exact Hk|]. split; [exact HK|]. split; [reflexivity|]. split; [|reflexivity].
    destruct m; reflexivity.
  - destruct (match bp with Other => load_field Fst (existing ++ x :: r) TEMPORARY_TEMP (FIELDS_PER_BLOCK - 1) | Last => Ok [] end) as [c2|] eqn:E2; [|discriminate].
    cbn [rbind] in H. destruct (Hlink _ _ E2) as [-> HK].
    destruct (load_values (rev (skipn rl (x :: r))) epr TEMPORARY_TEMP (3 - bp_n bp) m lc0) as [[c3 lc3]|] eqn:E3; [|discriminate]. cbn [rbind] in H.
    inversion H; subst. exists c3. split; [reflexivity|]. split; [exact Hk|]. split; [exact HK|]. split; [reflexivity|]. split; [|reflexivity].
    f_equal. rewrite <- !app_assoc. destruct freed0; destruct m; destruct bp; reflexivity.
Qed.

Definition frL (bp : block_position) (fr : bool) : bool := match bp with Last => false | Other => fr end.

(* `freed` is the register_freed flag of memory.rs on entry: it must be true only if X10 has really been evacuated
   (then some block pointer of this call sat in a spill slot, i.e. position >= 26).  The contents of every location
   are read through `lgetL`: X10's logical value is `saved`.
   SEEDED DEFECT (flag not reset between the two calls of load_fields in load_register): this lemma could then only be
   applied to the Share call with freed = true, whose hypotheses `26 <= 2 * |existing|` and
   `lgetL s sp true ...` (slot SPILL_TEMP holds X10's value) are false in the state after the header test - X10 is
   live and slot 0 is stale; `a64_load_walk_last` below applies it with freed = false, which is what the real
   code does. *)
Lemma a64_load_fields_ok : forall fuel to_load existing bp m freed lc cs fr lc' pos s sp p h F,
  load_fields fuel to_load existing bp m freed lc = Ok (cs, fr, lc') ->
  (List.length to_load < fuel)%nat -> (bp = Last -> to_load <> []) ->
  code_at im pos cs -> labels_at im pos cs -> frame_ok s sp ->
  (freed = true -> (26 <= 2 * N.of_nat (List.length existing))%N) ->
  lgetL s sp freed (tpos (2 * N.of_nat (List.length existing))) = Some p -> rget s HEAP = Some h ->
  lf_ok fuel (xm m) (hword s) to_load (xbp bp) p ->
  (m = Share -> forall x, is_blk x -> min_int <= hword s x /\ hword s x + Z.of_nat (List.length to_load) <= max_int) ->
  exists s', exec_to im pos s (padd pos (List.length cs)) s' /\
    st_eqB (abs_heap F s') (lf_abs fuel (xm m) (hword s) to_load (xbp bp) p (abs_heap F s)) /\
    (frL bp fr = true -> (26 <= 2 * N.of_nat (List.length existing + List.length to_load))%N) /\
    (bp = Other -> lgetL s' sp (frL bp fr) (tpos (2 * N.of_nat (List.length existing + List.length to_load))) =
                   Some (lf_ptr fuel (hword s) to_load (xbp bp) p)) /\
    (forall i b, nth_error to_load i = Some b ->
       let A := lf_addrs fuel (hword s) to_load (xbp bp) p in
       let a := nth (List.length A - List.length to_load + i) A 0 in
       lgetL s' sp (frL bp fr) (tpos (2 * N.of_nat (List.length existing + i) + 1)) = Some (hword s (a + 8)) /\
       (bchi b <> Ext -> lgetL s' sp (frL bp fr) (tpos (2 * N.of_nat (List.length existing + i))) = Some (hword s a))) /\
    (forall l, untouched l ->
       (forall k, (2 * N.of_nat (List.length existing) <= k <= 2 * N.of_nat (List.length existing + List.length to_load))%N -> l <> tpos k) ->
       lgetL s' sp (frL bp fr) l = lgetL s sp freed l) /\
    walk_frame m (List.length to_load) s s' sp.
Proof.
  induction fuel as [|fuel IH]; intros to_load existing bp m freed lc cs fr lc' pos s sp p h F Hlf Hfuel HLast HC HL FR Hfr P Hh OK Room; [lia|].
  set (E := List.length existing) in *.
  destruct to_load as [|x r].
  - destruct bp; [specialize (HLast eq_refl); contradiction|].
    cbn [load_fields] in Hlf. inversion Hlf; subst cs fr lc'. cbn [frL List.length padd X86MemLoadChain.lf_abs X86MemLoadChain.lf_ptr xbp]. rewrite Nat.add_0_r.
    exists s. split; [apply exec_refl|]. split; [apply st_eqB_refl|]. split; [exact Hfr|]. split; [intros _; exact P|].
    split; [intros i b Hi; destruct i; discriminate|]. split; [auto|].
    apply walk_frame_same; [reflexivity|eauto|reflexivity|exact FR|apply stack_frame_refl].
  - set (to_load := x :: r) in *. set (n := List.length to_load) in *.
    assert (Hne : to_load <> []) by discriminate.
    destruct (load_fields_unfold fuel to_load existing bp m freed lc cs fr lc' Hne Hlf) as (c0 & freed0 & lc0 & lv & Hlf0 & Kt & Hklm & Hlv & -> & Efr).
    destruct (lf_unfold fuel m (hword s) to_load bp p Hne) as (Uptr & Uabs & Uok & Uaddrs).
    fold n in Hlf0, Kt, Hlv, Efr, HC, HL, Hklm, Uptr, Uabs, Uok, Uaddrs |- *.
    set (cap := (3 - bp_n bp)%N) in *. set (rl := rest_len n cap) in *.
    set (rest := firstn rl to_load) in *. set (next := skipn rl to_load) in *.
    assert (Hcap : (cap = 3 \/ cap = 2)%N) by (unfold cap; destruct bp; cbn; auto).
    assert (Hrl : rl = (n - N.to_nat cap)%nat) by apply X86MemStoreChain.rest_len_val.
    assert (Hn : (1 <= n)%nat) by (unfold n, to_load; cbn; lia).
    assert (Lrest : List.length rest = rl) by (unfold rest; rewrite firstn_length; fold n; lia).
    assert (Lnext : List.length next = (n - rl)%nat) by (unfold next; rewrite skipn_length; reflexivity).
    assert (Lepr : List.length (existing ++ rest) = (E + rl)%nat) by (rewrite app_length, Lrest; reflexivity).
    assert (Lall : List.length (existing ++ to_load) = (E + n)%nat) by (rewrite app_length; reflexivity).
    assert (Hsplit : to_load = rest ++ next) by (unfold rest, next; now rewrite firstn_skipn).
    assert (Hnext : next <> []) by (intros Hx; rewrite Hx in Lnext; cbn [List.length] in Lnext; lia).
    rewrite Lepr, Lall in *.
    destruct (Uok OK) as (OK0 & Hbq & Kids). clear Uok.
    rewrite Uabs, Uptr, Uaddrs. clear Uabs Uptr Uaddrs.
    set (q := lf_ptr fuel (hword s) rest (xbp Other) p) in *.
    apply code_at_app2 in HC as [HC0 HC1]. apply labels_at_app2 in HL as [HL0 HL1].
    destruct (IH rest existing Other m freed lc c0 freed0 lc0 pos s sp p h F Hlf0 ltac:(rewrite Lrest; lia) ltac:(discriminate) HC0 HL0 FR Hfr P Hh OK0)
      as (s1 & ST1 & EQ1 & Fr1 & Lk1 & V1 & Oth1 & W1).
    { intros Hm x' Hx'. destruct (Room Hm x' Hx'). rewrite Lrest. fold n in H0. lia. }
    cbn [frL] in Fr1, Lk1, V1, Oth1. rewrite Lrest in *. fold E q in Fr1, Lk1, V1, Oth1.
    specialize (Lk1 eq_refl). pose proof W1 as (NB1 & Hd1 & (h1 & H1) & _ & FR1 & _).
    assert (Hfld1 : forall t j, (j < 3)%N -> hword s1 (q + field_offset t j) = hword s (q + field_offset t j)).
    { intros t j Hj. apply NB1. now apply field_not_blk. }
    assert (B3 : (N.of_nat (n - rl) <= cap)%N) by lia.
    assert (B4 : (2 * N.of_nat (E + n))%N = (2 * N.of_nat (E + rl + (n - rl)))%N) by (f_equal; f_equal; lia).
    assert (Kids1 : lv_kids (xm m) (hword s1) (rev next) q cap).
    { eapply X86MemLoad.lv_kids_congr; [|rewrite rev_length, Lnext; lia|exact Kids]. intros j Hj. symmetry. apply Hfld1. lia. }
    assert (Room1 : m = Share -> forall x, is_blk x -> min_int <= hword s1 x /\ hword s1 x + Z.of_nat (n - rl) <= max_int).
    { intros Hm x' Hx'. destruct (Room Hm x' Hx') as [R1 R2]. destruct (Hd1 Hm x' Hx') as [D1 D2]. fold n in R2. lia. }
    pose proof (a64_lf_blk_ok (padd pos (List.length c0)) bp next (existing ++ rest) m lc0 lv lc' freed0 (2 * N.of_nat (E + n)) s1 sp q h1 F) as BL.
    cbv zeta in BL. rewrite Lepr, Lnext in BL. fold cap in BL.
    destruct (BL Hlv Hnext B3 B4 Kt Hklm HC1 HL1 FR1 Fr1 Lk1 Hbq H1 Kids1 Room1) as (s2 & ST2 & EQ2 & Lk2 & V2 & Oth2 & W2).
    clear BL.
    assert (Hfa : freed_after (tpos (2 * N.of_nat (E + rl))) freed0 bp = frL bp fr).
    { rewrite Efr. destruct (tpos (2 * N.of_nat (E + rl))) as [mr|mp] eqn:Et; cbn [freed_after frL]; destruct bp; auto.
      destruct freed0; [|reflexivity]. specialize (Fr1 eq_refl). apply tpos_reg in Et as [_ Hlt]. lia. }
    rewrite Hfa in *.
    exists s2. split; [|split; [|split; [|split; [|split; [|split]]]]].
    + eapply exec_app_len; eassumption.
    + eapply st_eqB_trans; [exact EQ2|].
      apply X86MemLoadChain.blk_abs_congr; [exact EQ1|intros j Hj; apply Hfld1; lia|exact Hbq|rewrite Lnext; lia|exact Kids1].
    + intros Hf. destruct bp; cbn [frL] in Hf; [discriminate|]. rewrite Efr in Hf.
      destruct (tpos (2 * N.of_nat (E + rl))) as [mr|mp] eqn:Et.
      * specialize (Fr1 Hf). lia.
      * apply tpos_slot in Et as [_ Ht]. lia.
    + intros Ho. rewrite (Lk2 Ho). f_equal. apply NB1. apply X86MemFrame.not_blk_off; [exact Hbq|lia].
    + intros i b Hi. cbv zeta.
      assert (Hi0 : (i < n)%nat) by (apply nth_error_Some; congruence).
      assert (LA : (rl <= List.length (lf_addrs fuel (hword s) rest (xbp Other) p))%nat).
      { rewrite <- Lrest at 1. apply X86MemLoadChain.lf_addrs_length. rewrite Lrest. lia. }
      assert (LB : List.length (blk_addrs q cap) = N.to_nat cap) by (now apply X86MemLoadChain.blk_addrs_length).
      rewrite (nth_app_last _ _ n rl i) by (rewrite ?LB; assumption). rewrite LB.
      destruct (Nat.ltb_spec i rl) as [Hlt|Hge].
      * (* a variable of an earlier block *)
        assert (Hi' : nth_error rest i = Some b).
        { rewrite Hsplit in Hi. rewrite nth_error_app1 in Hi by (rewrite Lrest; exact Hlt). exact Hi. }
        destruct (V1 i b Hi') as [VS VF].
        assert (U : forall k, (k < 2 * N.of_nat (E + rl))%N -> untouched (tpos k) /\
                     (forall k', (2 * N.of_nat (E + rl) <= k' <= 2 * N.of_nat (E + n))%N -> tpos k <> tpos k')).
        { intros k Hk. split; [apply tpos_untouched; lia|]. intros k' Hk'. apply tpos_neq. lia. }
        split; [|intros Hx].
        -- destruct (U (2 * N.of_nat (E + i) + 1)%N ltac:(lia)) as [U1 U2]. rewrite (Oth2 _ U1 U2). exact VS.
        -- destruct (U (2 * N.of_nat (E + i))%N ltac:(lia)) as [U1 U2]. rewrite (Oth2 _ U1 U2). exact (VF Hx).
      * (* a variable of this block *)
        assert (Hi' : nth_error next (i - rl) = Some b).
        { rewrite Hsplit in Hi. rewrite nth_error_app2 in Hi by (rewrite Lrest; exact Hge). now rewrite Lrest in Hi. }
        destruct (V2 _ b Hi') as [VS VF].
        replace (E + rl + (i - rl))%nat with (E + i)%nat in VS, VF by lia.
        set (j := (cap - N.of_nat (n - rl) + N.of_nat (i - rl))%N) in *.
        assert (Hj : (j < cap)%N) by (unfold j; lia).
        replace (N.to_nat cap - (n - rl) + (i - rl))%nat with (N.to_nat j) by (unfold j; lia).
        rewrite (X86MemLoadChain.blk_addrs_nth q cap j Hcap Hj). fo.
        rewrite snd_after_fst.
        rewrite <- !Hfld1 by lia. auto.
    + intros l U Hr. rewrite Oth2; [apply Oth1; [exact U|]|exact U|]; intros k Hk; apply Hr; lia.
    + apply (walk_frame_trans m rl (n - rl) n s s1 s2); [lia|exact W1|exact W2].
Qed.
End LoadChain.

Print Assumptions a64_load_fields_ok.

Section LoadFull.
Variable im : image.


Lemma load_register_shape br to_load existing lc cs lc' :
  load_register br to_load existing lc = Ok (cs, lc') ->
  exists thn fr1 lc1 els fr2 lc2,
    load_fields (S (List.length to_load)) to_load existing Last Release false lc = Ok (thn, fr1, lc1) /\
    load_fields (S (List.length to_load)) to_load existing Last Share false lc1 = Ok (els, fr2, lc2) /\
    cs = fst (if_zero_then_else TEMP2 thn ([SUBI TEMP2 TEMP2 1; STR TEMP2 br REFERENCE_COUNT_OFFSET] ++ els) lc2).
Proof.
  unfold load_register. intros H.
  destruct (load_fields (S (List.length to_load)) to_load existing Last Release false lc) as [[[thn fr1] lc1]|] eqn:E1; [|discriminate].
  cbn [rbind] in H.
  destruct (load_fields (S (List.length to_load)) to_load existing Last Share false lc1) as [[[els fr2] lc2]|] eqn:E2; [|discriminate].
  cbn [rbind] in H.
  exists thn, fr1, lc1, els, fr2, lc2. split; [first [reflexivity|exact E1]|]. split; [first [reflexivity|exact E2]|].
  change cs with (fst (cs, lc')). congruence.
Qed.

(* what the walk needs of the object at p: every block of the chain is a block; if the object stays alive (its
   count is not 0) the pointer slots that are shared are null or blocks; the counts are 64-bit values with room for
   one more reference per variable *)
Definition walk_pre (s : astate) (p : Z) (to_load : ctx) : Prop :=
  lf_ok (S (List.length to_load)) X86.Release (hword s) to_load XLast p /\
  (hword s p <> 0 -> lf_ok (S (List.length to_load)) X86.Share (hword s) to_load XLast p) /\
  (forall x, is_blk x -> min_int + 1 <= hword s x /\ hword s x + Z.of_nat (List.length to_load) <= max_int).

(* the code before load_register: the object pointer into a register, its header into TEMP2 *)
Definition header_code (t : atemp) : areg * list acode :=
  match t with
  | AR r => (r, [LDR TEMP2 r REFERENCE_COUNT_OFFSET])
  | AS q => (TEMP, [LDR TEMP SP (stack_offset q); LDR TEMP2 TEMP REFERENCE_COUNT_OFFSET])
  end.

Lemma a_load_shape to_load existing lc cs lc' :
  a_load to_load existing lc = Ok (cs, lc') -> to_load <> [] ->
  let t := tpos (2 * N.of_nat (List.length existing)) in
  (2 * N.of_nat (List.length existing) < MAXPOS)%N /\
  exists c1, load_register (fst (header_code t)) to_load existing lc = Ok (c1, lc') /\ cs = snd (header_code t) ++ c1.
Proof.
  unfold a_load. intros Hx Hne. destruct to_load as [|x0 r0]; [contradiction|].
  destruct (a_fresh Fst existing) as [t|] eqn:Et; [|discriminate]. cbn [rbind] in Hx.
  apply a_fresh_tpos in Et as [-> Hk]. cbn [tnum_n] in *. rewrite N.add_0_r in *. split; [exact Hk|].
  destruct (tpos _) as [r|q]; cbn [header_code fst snd];
    (destruct (load_register _ _ _ _) as [[c1 lc1]|]; [|discriminate]); cbn [rbind fst snd] in Hx;
    inversion Hx; subst; exists c1; split; reflexivity.
Qed.

Lemma a64_load_header pos t s sp p :
  code_at im pos (snd (header_code t)) -> frame_ok s sp -> loc_ok t -> t <> AR TEMP2 ->
  lget s sp t = Some p -> is_blk p ->
  let br := fst (header_code t) in
  exists s0, exec_to im pos s (padd pos (List.length (snd (header_code t)))) s0 /\
    gp br /\ br <> TEMP2 /\ rget s0 br = Some p /\ rget s0 TEMP2 = Some (hword s p) /\
    (forall l, l <> AR TEMP -> l <> AR TEMP2 -> lget s0 sp l = lget s sp l) /\
    heap s0 = heap s /\ stack s0 = stack s /\ out s0 = out s /\ frame_ok s0 sp.
Proof.
  intros HC FR LK NT2 P Hb. pose proof (blk_heap_addr0 p Hb) as Ha.
  change REFERENCE_COUNT_OFFSET with 0 in *.
  destruct t as [r|q]; cbn [header_code fst snd loc_ok lget List.length] in *.
  - exists (rset s TEMP2 (Some (hword s (p + 0)))). assert (NrT : r <> TEMP2) by congruence.
    split; [nxt HC 0%nat; [apply (step_LDR_h im s TEMP2 r 0 p LK P Ha)|apply exec_refl]|].
    split; [exact LK|]. split; [exact NrT|]. split; [now rewrite rget_rset_other by congruence|].
    split; [rewrite Z.add_0_r; apply rget_rset_same; exact I|].
    split; [intros [r'|q'] _ Hl; cbn [lget]; [apply rget_rset_other; congruence|apply sget_rset]|].
    split; [apply heap_rset|]. split; [apply stack_rset|]. split; [apply out_rset|].
    apply frame_ok_rset; [discriminate|exact FR].
  - set (sT := rset s TEMP (Some p)).
    assert (RTp : rget sT TEMP = Some p) by (apply rget_rset_same; exact I).
    exists (rset sT TEMP2 (Some (hword sT (p + 0)))). split.
    { nxt HC 0%nat. { rewrite (step_LDR_slot im s sp FR) by exact LK. rewrite P. reflexivity. }
      nxt HC 1%nat. { apply (step_LDR_h im sT TEMP2 TEMP 0 p I RTp Ha). }
      apply exec_refl. }
    split; [exact I|]. split; [discriminate|]. split; [now rewrite rget_rset_other by discriminate|].
    split; [rewrite Z.add_0_r; unfold sT at 2; rewrite hword_rset; apply rget_rset_same; exact I|].
    split; [intros [r'|q'] Hl Hl2; cbn [lget]; unfold sT; [rewrite !rget_rset_other by congruence; reflexivity|now rewrite !sget_rset]|].
    unfold sT. split; [now rewrite !heap_rset|]. split; [now rewrite !stack_rset|]. split; [now rewrite !out_rset|].
    apply frame_ok_rset; [discriminate|]. apply frame_ok_rset; [discriminate|exact FR].
Qed.

(* what `a_load` (or a part of it begun in s0) has done in s' for an object that was at p in s: the loaded variables hold
   its fields; the variables below them, the output, FREE and the stack outside the frame are as in s0 *)
Definition loaded (to_load existing : ctx) (p sp : Z) (s s0 s' : astate) : Prop :=
  (forall i b, nth_error to_load i = Some b ->
     let A := lf_addrs (S (List.length to_load)) (hword s) to_load XLast p in
     let a := nth (List.length A - List.length to_load + i) A 0 in
     lget s' sp (tpos (2 * N.of_nat (List.length existing + i) + 1)) = Some (hword s (a + 8)) /\
     (bchi b <> Ext -> lget s' sp (tpos (2 * N.of_nat (List.length existing + i))) = Some (hword s a))) /\
  (forall k, (k < 2 * N.of_nat (List.length existing))%N -> lget s' sp (tpos k) = lget s0 sp (tpos k)) /\
  out s' = out s0 /\ frame_ok s' sp /\
  nonblk_same s s' /\ (exists h', rget s' HEAP = Some h') /\ rget s' FREE = rget s0 FREE /\ stack_frame s0 s' sp.

(* one call of load_fields by load_register (Last, register_freed = false), begun in a state sX that differs from s0
   in TEMP2 and the flags and from s in block headers at most: the walk reads only link and field words.
   SEEDED DEFECT (register_freed carried over from the Release call into the Share call): `a64_load_fields_ok` would
   have to be applied with freed = true, and its hypothesis `lgetL sX sp true (tpos ...)`/its conclusion for l = AR X10
   (`lgetL s' sp false (AR X10) = saved sX sp true` = the stale slot 0) would not give
   `lget s' sp (tpos 6) = lget s0 sp (tpos 6)`: the conjunct `forall k < 2 * |existing|` of `loaded` fails for k = 6. *)
Lemma a64_load_walk_last m to_load existing lc cs fr lc' pos s s0 sX sp p h F a0 :
  let fuel := S (List.length to_load) in
  load_fields fuel to_load existing Last m false lc = Ok (cs, fr, lc') -> to_load <> [] ->
  (2 * N.of_nat (List.length existing) < MAXPOS)%N -> code_at im pos cs -> labels_at im pos cs -> frame_ok sX sp ->
  (forall a, ~ is_blk a -> hword sX a = hword s a) ->
  (forall l, l <> AR TEMP2 -> lget sX sp l = lget s0 sp l) -> out sX = out s0 -> stack sX = stack s0 ->
  lget s0 sp (tpos (2 * N.of_nat (List.length existing))) = Some p -> rget s0 HEAP = Some h ->
  lf_ok fuel (xm m) (hword s) to_load XLast p ->
  (m = Share -> forall x, is_blk x -> min_int <= hword sX x /\ hword sX x + Z.of_nat (List.length to_load) <= max_int) ->
  st_eqB (abs_heap F sX) a0 ->
  exists s', exec_to im pos sX (padd pos (List.length cs)) s' /\
    st_eqB (abs_heap F s') (lf_abs fuel (xm m) (hword s) to_load XLast p a0) /\
    loaded to_load existing p sp s s0 s'.
Proof.
  intros fuel Hlf Hne HkE HC HL FRX Wnb LX OX SX P0 Hh0 OK Room EQX.
  destruct (X86MemLoadChain.lf_ext (xm m) (hword s) (hword sX) Wnb fuel to_load XLast p (abs_heap F sX) a0 OK EQX) as (_ & X2 & X3 & X4).
  assert (PX : lgetL sX sp false (tpos (2 * N.of_nat (List.length existing))) = Some p).
  { rewrite lgetL_false, LX by apply tpos_not_temp2. exact P0. }
  assert (HhX : rget sX HEAP = Some h) by (rewrite <- Hh0; apply (LX (AR HEAP)); discriminate).
  destruct (a64_load_fields_ok im fuel to_load existing Last m false lc cs fr lc' pos sX sp p h F Hlf ltac:(unfold fuel; lia) (fun _ => Hne) HC HL FRX
              ltac:(discriminate) PX HhX X3 Room)
    as (s' & ST & EQ & _ & _ & V & O & NB & _ & HH & Out & FR' & SF).
  cbn [frL xbp] in V, O, EQ.
  assert (Keep : forall l, untouched l ->
            (forall k, (2 * N.of_nat (List.length existing) <= k <= 2 * N.of_nat (List.length existing + List.length to_load))%N -> l <> tpos k) ->
            lget s' sp l = lget s0 sp l).
  { intros l U Hr. rewrite <- (lgetL_false s' sp), (O l U Hr), lgetL_false. apply LX. apply U. }
  exists s'. split; [exact ST|]. split; [exact (st_eqB_trans _ _ _ EQ X4)|].
  split; [|split; [|split; [congruence|split; [exact FR'|split; [|split; [exact HH|split]]]]]].
  - (* the addresses read are fields, not headers *)
    subst fuel. intros i b Hi A a. destruct (V i b Hi) as [VS VF]. rewrite !lgetL_false in VS, VF. rewrite X2 in VS, VF. fold A a in VS, VF.
    assert (Hi' : (i < List.length to_load)%nat) by (apply nth_error_Some; congruence).
    assert (LA : (List.length to_load <= List.length A)%nat) by (apply X86MemLoadChain.lf_addrs_length; lia).
    assert (Hin : In a A) by (apply nth_In; lia).
    destruct (X86MemLoadChain.lf_addrs_in (xm m) (hword s) _ to_load XLast p a OK Hin) as (q & j & Hq & Hj & Ea). fo.
    assert (N1 : ~ is_blk a) by (rewrite Ea; now apply field_not_blk).
    assert (N2 : ~ is_blk (a + 8)) by (rewrite Ea, snd_after_fst; now apply field_not_blk).
    rewrite (Wnb _ N1) in VF. rewrite (Wnb _ N2) in VS. auto.
  - intros k Hk. apply Keep; [apply tpos_untouched; lia|intros k' Hk'; apply tpos_neq; lia].
  - intros a Hna. rewrite NB by exact Hna. now apply Wnb.
  - apply (Keep (AR FREE)); [split; [exact I|repeat split; discriminate]|intros k _; apply not_eq_sym, tpos_not_reserved].
  - exact (stack_frame_trans _ _ _ _ (stack_frame_eq _ _ _ SX) SF).
Qed.

(* load_register, the block register br holding p and the header already in TEMP2; s is the state before the
   header was fetched, s0 the present one *)
Lemma a64_load_register_ok to_load existing lc s sp p h F br cs pos s0 lcx :
  to_load <> [] -> (2 * N.of_nat (List.length existing) < MAXPOS)%N -> is_blk p -> walk_pre s p to_load ->
  load_register br to_load existing lc = Ok (cs, lcx) ->
  code_at im pos cs -> labels_at im pos cs -> frame_ok s0 sp -> gp br -> br <> TEMP2 ->
  rget s0 br = Some p -> rget s0 TEMP2 = Some (hword s p) ->
  lget s0 sp (tpos (2 * N.of_nat (List.length existing))) = Some p -> rget s0 HEAP = Some h ->
  (forall a, hword s0 a = hword s a) ->
  let fuel := S (List.length to_load) in
  exists s', exec_to im pos s0 (padd pos (List.length cs)) s' /\
    st_eqB (abs_heap F s')
      (if hword s p =? 0 then lf_abs fuel X86.Release (hword s) to_load XLast p (abs_heap F s0)
       else lf_abs fuel X86.Share (hword s) to_load XLast p (Heap.dec p (abs_heap F s0))) /\
    loaded to_load existing p sp s s0 s'.
Proof.
  intros Hne HkE Hb (OKr & OKs & Room) Hlr HC HL FR0 Gb NB2 Rb RT2 P0 Hh0 W0 fuel.
  destruct (load_register_shape _ _ _ _ _ _ Hlr) as (thn & fr1 & lc1 & els & fr2 & lc2 & Ethn & Eels & ->).
  change REFERENCE_COUNT_OFFSET with 0 in *.
  set (eb := [SUBI TEMP2 TEMP2 1; STR TEMP2 br 0] ++ els) in *.
  destruct (ite_frame im pos TEMP2 thn eb lc2 HC HL) as (lt & le & _ & _ & CE & LE & _ & _ & _ & CT & LT & _ & _).
  pose proof (blk_heap_addr0 p Hb) as Ha.
  destruct (Room p Hb) as [Rlo Rhi].
  assert (I64 : min_int <= hword s p <= max_int) by lia.
  set (sa := set_flags s0 (Some (cmp_flags (hword s p) 0))).
  assert (FRa : frame_ok sa sp) by (now apply frame_ok_set_flags).
  assert (La : forall l, lget sa sp l = lget s0 sp l) by (intros l; apply lget_set_flags).
  destruct (Z.eqb_spec (hword s p) 0) as [H0|Hn0].
  - (* last reference: release the blocks, plain loads *)
    destruct (a64_load_walk_last Release to_load existing lc thn fr1 lc1 _ s s0 sa sp p h F (abs_heap F s0) Ethn Hne HkE CT LT FRa
                (fun a _ => W0 a) (fun l _ => La l) eq_refl eq_refl P0 Hh0 OKr ltac:(discriminate))
      as (sb & STb & Rest); [apply abs_heap_eqB; [intros; reflexivity|apply rget_set_flags|apply rget_set_flags]|].
    exists sb. split; [|exact Rest].
    eapply ite_zero; [exact HC|exact HL|exact RT2|rewrite H0; reflexivity|]. fold sa. rewrite <- padd_add in STb. exact STb.
  - (* other references remain: decrement the count, load and share.
       The Share walk starts with register_freed = false (Model/A64.v passes `false` to both calls of load_fields):
       X10 holds its variable here, slot SPILL_TEMP holds nothing. *)
    assert (Wd : wrap (hword s p - 1) = hword s p - 1) by (apply wrap_in64; lia).
    set (s1 := rset sa TEMP2 (Some (hword s p - 1))).
    set (sd := hset s1 (p + 0) (hword s p - 1)).
    assert (R1b : rget s1 br = Some p) by (unfold s1, sa; rewrite rget_rset_other by congruence; rewrite rget_set_flags; exact Rb).
    assert (FRd : frame_ok sd sp) by (apply frame_ok_hset, frame_ok_rset; [discriminate|exact FRa]).
    assert (Wsd : forall a, hword sd a = if a =? p then hword s p - 1 else hword s a).
    { intros a. unfold sd. rewrite Z.add_0_r, hword_hset by (now apply is_blk_pos). unfold s1, sa. now rewrite hword_rset, hword_set_flags, W0. }
    assert (Wnb : forall a, ~ is_blk a -> hword sd a = hword s a).
    { intros a Hna. rewrite Wsd. destruct (Z.eqb_spec a p) as [->|]; [contradiction|reflexivity]. }
    assert (Ld : forall l, l <> AR TEMP2 -> lget sd sp l = lget s0 sp l).
    { intros l Hl. unfold sd. rewrite lget_hset. unfold s1. rewrite <- La.
      destruct l as [r|q]; cbn [lget]; [apply rget_rset_other; congruence|apply sget_rset]. }
    assert (EQd : st_eqB (abs_heap F sd) (Heap.dec p (abs_heap F s0))).
    { assert (RHd : rget sd HEAP = rget s0 HEAP) by (apply (Ld (AR HEAP)); discriminate).
      assert (RFd : rget sd FREE = rget s0 FREE) by (apply (Ld (AR FREE)); discriminate).
      unfold Heap.dec, abs_heap, reg_or0. cbn [Heap.m Heap.heap Heap.free Heap.frontier]. rewrite RHd, RFd.
      split; [reflexivity|]. split; [reflexivity|]. split; [reflexivity|].
      intros x Hx'. cbn [Heap.m]. change (Heap.hdr (abs_mem s0 p)) with (hword s0 p). rewrite W0.
      apply abs_mem_upd; auto. intros a. rewrite Wsd, W0. reflexivity. }
    unfold eb in CE, LE. apply code_at_app2 in CE as [CE0 CE1]. apply labels_at_app2 in LE as [_ LE1].
    destruct (a64_load_walk_last Share to_load existing lc1 els fr2 lc2 _ s s0 sd sp p h F (Heap.dec p (abs_heap F s0)) Eels Hne HkE CE1 LE1 FRd Wnb Ld)
      as (se & STe & Rest); [reflexivity|unfold sd, s1, sa; cbn [stack set_heap]; now rewrite stack_rset|exact P0|exact Hh0|exact (OKs Hn0)| |exact EQd|].
    { intros _ x Hx'. destruct (Room x Hx'). rewrite Wsd. destruct (x =? p); lia. }
    exists se. split; [|exact Rest].
    eapply ite_nz; [exact HC|exact HL|exact RT2|rewrite wrap_in64 by exact I64; now apply Z.eqb_neq|]. fold sa.
    nxt CE0 0%nat. { rewrite (step_SUBI_reg im sa TEMP2 TEMP2 (hword s p) 1) by (unfold sa; rewrite rget_set_flags; exact RT2). rewrite Wd. reflexivity. }
    fold s1.
    nxt CE0 1%nat. { apply (step_STR_h im s1 TEMP2 br 0 p (hword s p - 1) Gb R1b Ha). unfold s1. apply rget_rset_same. exact I. }
    fold sd.
    match type of STe with exec_to _ _ _ ?e _ => replace e with (padd pos (2 + List.length eb)) in STe by (unfold eb; padd_eq) end.
    exact STe.
Qed.

Theorem a64_load_walk_full pos to_load existing lc cs lc' s sp p h F :
  a_load to_load existing lc = Ok (cs, lc') -> to_load <> [] ->
  code_at im pos cs -> labels_at im pos cs -> frame_ok s sp ->
  lget s sp (tpos (2 * N.of_nat (List.length existing))) = Some p -> is_blk p -> rget s HEAP = Some h ->
  walk_pre s p to_load ->
  let fuel := S (List.length to_load) in
  exists s', exec_to im pos s (padd pos (List.length cs)) s' /\
    st_eqB (abs_heap F s')
      (if hword s p =? 0 then lf_abs fuel X86.Release (hword s) to_load XLast p (abs_heap F s)
       else lf_abs fuel X86.Share (hword s) to_load XLast p (Heap.dec p (abs_heap F s))) /\
    loaded to_load existing p sp s s s'.
Proof.
  intros Hx Hne HC HL FR P Hb Hh WP fuel.
  destruct (a_load_shape _ _ _ _ _ Hx Hne) as (Hk & c1 & Elr & ->).
  apply code_at_app2 in HC as [HC1 HC2]. apply labels_at_app2 in HL as [_ HL2].
  destruct (a64_load_header pos _ s sp p HC1 FR (tpos_loc_ok _ Hk) (tpos_not_temp2 _) P Hb)
    as (s0 & ST0 & Gb & NB2 & Rb & RT2 & L0 & EH & ES & EO & FR0).
  assert (RH0 : rget s0 HEAP = rget s HEAP) by (apply (L0 (AR HEAP)); discriminate).
  assert (RF0 : rget s0 FREE = rget s FREE) by (apply (L0 (AR FREE)); discriminate).
  destruct (a64_load_register_ok to_load existing lc s sp p h F _ c1 _ s0 lc' Hne Hk Hb WP Elr HC2 HL2 FR0 Gb NB2 Rb RT2)
    as (s' & ST & EQ & V & O & Out & FR' & NB' & HH' & FF' & SF').
  { rewrite L0 by (apply tpos_not_temp || apply tpos_not_temp2). exact P. }
  { now rewrite RH0. }
  { intros a. unfold hword. now rewrite EH. }
  rewrite (abs_heap_ext F s s0 EH RH0 RF0) in EQ.
  exists s'. split; [eapply exec_app_len; [exact ST0|exact ST]|]. split; [exact EQ|]. split; [exact V|].
  split; [intros k Hk'; rewrite O by exact Hk'; apply L0; [apply tpos_not_temp|apply tpos_not_temp2]|].
  split; [now rewrite Out|]. split; [exact FR'|]. split; [exact NB'|]. split; [exact HH'|]. split; [now rewrite FF'|].
  apply (stack_frame_trans s s0); [apply stack_frame_eq; exact ES|exact SF'].
Qed.

Theorem a64_load_full pos to_load existing lc cs lc' s sp p h F :
  a_load to_load existing lc = Ok (cs, lc') -> to_load <> [] ->
  code_at im pos cs -> labels_at im pos cs -> frame_ok s sp ->
  lget s sp (tpos (2 * N.of_nat (List.length existing))) = Some p -> is_blk p -> rget s HEAP = Some h ->
  lf_share_ok (S (List.length to_load)) (hword s) to_load XLast p ->
  (forall x, is_blk x -> min_int + 1 <= hword s x /\ hword s x + Z.of_nat (List.length to_load) <= max_int) ->
  exists s', exec_to im pos s (padd pos (List.length cs)) s' /\
    st_eqB (abs_heap F s') (Heap.load_object (Heap.nlinks (List.length to_load)) p (abs_heap F s)) /\
    loaded to_load existing p sp s s s'.
Proof.
  intros Hx Hne HC HL FR P Hb Hh OK Room.
  destruct (a64_load_walk_full pos to_load existing lc cs lc' s sp p h F Hx Hne HC HL FR P Hb Hh)
    as (s' & ST & EQ & Rest).
  { apply X86MemLoadChain.lf_share_ok_lf_ok in OK as OKs.
    split; [exact (X86MemLoadChain.lf_ok_release _ _ _ _ _ _ OKs)|split; [intros _; exact OKs|exact Room]]. }
  exists s'. split; [exact ST|]. split; [|exact Rest].
  eapply st_eqB_trans; [exact EQ|]. unfold Heap.load_object.
  change (Heap.hdr (Heap.m (abs_heap F s) p)) with (hword s p).
  assert (PS : X86MemLoadChain.ps_w (hword s) (abs_heap F s)) by (intros q; reflexivity).
  destruct (hword s p =? 0).
  - rewrite X86MemLoadChain.lf_abs_release_load_object; [apply st_eqB_refl|exact Hne|exact PS].
  - unfold Heap.load_object_share. apply X86MemLoadChain.lf_abs_share_load_object; [exact Hne|apply X86MemLoadChain.ps_w_dec, PS|exact OK].
Qed.
End LoadFull.

Print Assumptions a64_load_full.

(* the one-block case in the shape of `x86_load_one_block_ok` (C09_x86_load_one_block): a_load of 1..3 variables
   = `Heap.load p` *)
Definition load_pre (s : astate) (p : Z) (E : nat) (to_load : list binding) : Prop :=
  let n := List.length to_load in
  (forall j, (j < 3)%N -> hword s (p + field_offset Fst j) = 0 \/ is_blk (hword s (p + field_offset Fst j))) /\
  (forall j, (j < 3 - N.of_nat n)%N -> hword s (p + field_offset Fst j) = 0) /\
  (forall i b, nth_error to_load i = Some b -> bchi b = Ext -> hword s (p + field_offset Fst (3 - N.of_nat n + N.of_nat i)) = 0) /\
  (forall x, is_blk x -> min_int + 1 <= hword s x <= max_int - 3).

Lemma load_object_0 p a : Heap.load_object 0 p a = Heap.load p a.
Proof.
  unfold Heap.load_object, Heap.load, Heap.load_object_share, Heap.load_share. cbn [Heap.load_object_release Heap.share_walk].
  now rewrite HeapMore.dec_ps.
Qed.
Lemma lf_ptr_nil w p bp : forall fuel, lf_ptr fuel w [] bp p = p.
Proof. destruct fuel; reflexivity. Qed.

Theorem a64_load_one_block_ok im pos to_load existing lc cs lc' s sp p h F :
  a_load to_load existing lc = Ok (cs, lc') -> (1 <= List.length to_load <= 3)%nat ->
  code_at im pos cs -> labels_at im pos cs -> frame_ok s sp ->
  lget s sp (tpos (2 * N.of_nat (List.length existing))) = Some p -> is_blk p -> rget s HEAP = Some h ->
  load_pre s p (List.length existing) to_load ->
  exists s', exec_to im pos s (padd pos (List.length cs)) s' /\
    st_eqB (abs_heap F s') (Heap.load p (abs_heap F s)) /\
    (forall i b, nth_error to_load i = Some b ->
       lget s' sp (tpos (2 * N.of_nat (List.length existing + i) + 1)) =
         Some (hword s (p + field_offset Snd (3 - N.of_nat (List.length to_load) + N.of_nat i))) /\
       (bchi b <> AxSyn.Ext -> lget s' sp (tpos (2 * N.of_nat (List.length existing + i))) =
         Some (hword s (p + field_offset Fst (3 - N.of_nat (List.length to_load) + N.of_nat i))))) /\
    (forall k, (k < 2 * N.of_nat (List.length existing))%N -> lget s' sp (tpos k) = lget s sp (tpos k)) /\
    out s' = out s /\ frame_ok s' sp.
Proof.
  intros Hx Hlen HC HL FR P Hb Hh (Kall & Kz & Ke & Room).
  set (n := List.length to_load) in *.
  assert (Hne : to_load <> []) by (intros ->; cbn in Hlen; lia).
  assert (Hrl : rest_len n 3 = 0%nat) by (rewrite X86MemStoreChain.rest_len_val; lia).
  assert (Hnl : Heap.nlinks n = 0%nat) by (unfold Heap.nlinks; destruct (Nat.leb_spec n 3); [reflexivity|lia]).
  assert (EA : lf_addrs (S n) (hword s) to_load XLast p = [p + 16; p + 32; p + 48]).
  { destruct to_load as [|x r]; [contradiction|]. cbn [X86MemLoadChain.lf_addrs]. change (3 - X86.bp_n XLast)%N with 3%N.
    fold n. rewrite Hrl. cbn [firstn]. rewrite lf_ptr_nil, X86MemLoadFull.lf_addrs_nil. reflexivity. }
  destruct (a64_load_full im pos to_load existing lc cs lc' s sp p h F Hx Hne HC HL FR P Hb Hh)
    as (s' & ST & EQ & V & O & Out & FR' & _).
  - destruct to_load as [|x r]; [contradiction|]. cbn [X86MemLoadChain.lf_share_ok]. change (3 - X86.bp_n XLast)%N with 3%N.
    fold n. rewrite Hrl. cbn [firstn skipn]. rewrite lf_ptr_nil. fo. fold n.
    split; [apply X86MemLoadFull.lf_share_ok_nil|]. split; [exact Hb|]. split; [exact Kall|]. split; [exact Kz|exact Ke].
  - intros x Hx'. destruct (Room x Hx'). fold n. lia.
  - fold n in EQ, V. rewrite Hnl, load_object_0 in EQ. rewrite EA in V.
    exists s'. split; [exact ST|]. split; [exact EQ|]. split; [|auto].
    intros i b Hi. destruct (V i b Hi) as [VS VF]. cbn [List.length] in VS, VF.
    assert (Hi' : (i < n)%nat) by (apply nth_error_Some; congruence).
    set (j := (3 - N.of_nat n + N.of_nat i)%N).
    assert (Ej : nth (3 - n + i) [p + 16; p + 32; p + 48] 0 = p + field_offset Fst j).
    { pose proof (X86MemLoadChain.blk_addrs_nth p 3 j ltac:(auto) ltac:(unfold j; lia)) as BN. fo.
      rewrite <- BN. unfold X86MemLoadChain.blk_addrs. cbn [N.eqb Pos.eqb]. f_equal. unfold j. lia. }
    rewrite Ej in VS, VF.
    rewrite snd_after_fst in VS.
    auto.
Qed.
Print Assumptions a64_load_one_block_ok.

(* the hypotheses are satisfiable: a shared two-block object with five fields loaded behind 13 variables
   (positions 0..25 = all registers X4..X29), so its pointer, both block pointers and all loaded variables sit in
   spill slots; TEMPORARY_TEMP = X10 (the first temporary of variable 3) is evacuated and restored *)
Definition ex_sp : Z := STACK_TOP - 4096.
Definition ex13_existing : ctx :=
  map (fun i => mkb ("v"%string, i) Ext I64) [0; 1; 2; 3; 4; 5; 6; 7; 8; 9; 10; 11; 12]%N.
Definition ex13_state : astate :=
  let r := rset (rset (rset (rset (init_state []) SP (Some ex_sp)) HEAP (Some (HEAP_BASE + 192))) FREE (Some (HEAP_BASE + 256))) (X 10) (Some 777) in
  let st := sset r ex_sp 1 (Some HEAP_BASE) in
  fold_left (fun s (az : Z * Z) => hset s (HEAP_BASE + fst az) (snd az))
            [(0, 1); (24, 11); (32, HEAP_BASE + 128); (40, 22); (48, HEAP_BASE + 64); (64 + 24, 33); (64 + 40, 44); (64 + 56, 55)] st.
Definition ex13_code : list acode := match a_load X86MemStoreChain.ex5_store ex13_existing 0 with Ok (cs, _) => cs | Err _ => [] end.

Lemma ex13_words o : hword ex13_state (HEAP_BASE + o) =
  if o =? 120 then 55 else if o =? 104 then 44 else if o =? 88 then 33 else if o =? 48 then HEAP_BASE + 64 else
  if o =? 40 then 22 else if o =? 32 then HEAP_BASE + 128 else if o =? 24 then 11 else if o =? 0 then 1 else 0.
Proof.
  unfold ex13_state. cbn [fold_left fst snd]. rewrite !hword_hset_off by reflexivity.
  rewrite hword_sset, !hword_rset. unfold hword, hget, init_state; cbn [heap]. now rewrite PM.gempty.
Qed.
Lemma ex_blk k : 0 <= k <= 4 -> is_blk (HEAP_BASE + 64 * k).
Proof. intros Hk. exists k. split; [lia|]. split; [reflexivity|]. unfb. lia. Qed.

(* one level of lf_share_ok, the two sub-lists and the block pointer given explicitly *)
Lemma lf_share_ok_step f w tl bp p rest next q :
  let cap := (3 - X86.bp_n bp)%N in
  tl <> [] -> rest = firstn (rest_len (List.length tl) cap) tl -> next = skipn (rest_len (List.length tl) cap) tl ->
  q = lf_ptr f w rest X86.Other p ->
  lf_share_ok f w rest X86.Other p -> is_blk q ->
  (forall j, (j < cap)%N -> w (q + field_offset Fst j) = 0 \/ is_blk (w (q + field_offset Fst j))) ->
  (forall j, (j < cap - N.of_nat (List.length next))%N -> w (q + field_offset Fst j) = 0) ->
  (forall i b, nth_error next i = Some b -> bchi b = Ext ->
     w (q + field_offset Fst (cap - N.of_nat (List.length next) + N.of_nat i)) = 0) ->
  lf_share_ok (S f) w tl bp p.
Proof.
  intros cap Hne -> -> -> H1 H2 H3 H4 H5. destruct tl; [contradiction|].
  cbn [X86MemLoadChain.lf_share_ok]. fo. auto.
Qed.

(* a and b lie in the block at HEAP_BASE (two fields and the link), c, d and e in the block at HEAP_BASE + 64 *)
Lemma ex13_share_ok : lf_share_ok 6 (hword ex13_state) X86MemStoreChain.ex5_store XLast HEAP_BASE.
Proof.
  assert (S1 : lf_share_ok 5 (hword ex13_state) (firstn 2 X86MemStoreChain.ex5_store) X86.Other HEAP_BASE).
  { apply (lf_share_ok_step 4 _ _ X86.Other HEAP_BASE [] (firstn 2 X86MemStoreChain.ex5_store) HEAP_BASE);
      [discriminate|reflexivity|reflexivity|reflexivity|apply X86MemLoadFull.lf_share_ok_nil|exact (ex_blk 0 ltac:(lia))| | |].
    - intros j Hj. assert (Hc : (j = 0 \/ j = 1)%N) by (cbn in Hj; lia).
      destruct Hc as [-> | ->]; rewrite ?fo_F0, ?fo_F1, ex13_words; [left; reflexivity|right; exact (ex_blk 2 ltac:(lia))].
    - intros j Hj. cbn in Hj. lia.
    - intros i b Hi Hb. destruct i as [|[|i]]; cbn [nth_error firstn X86MemStoreChain.ex5_store] in Hi; try (destruct i; discriminate);
        inversion Hi; subst b; try discriminate Hb. rewrite ex13_words. reflexivity. }
  apply (lf_share_ok_step 5 _ _ XLast HEAP_BASE (firstn 2 X86MemStoreChain.ex5_store) (skipn 2 X86MemStoreChain.ex5_store) (HEAP_BASE + 64 * 1));
    [discriminate|reflexivity|reflexivity| |exact S1|exact (ex_blk 1 ltac:(lia))| | |].
  - transitivity (hword ex13_state (HEAP_BASE + 48)); [rewrite ex13_words; reflexivity|reflexivity].
  - intros j Hj. assert (Hc : (j = 0 \/ j = 1 \/ j = 2)%N) by (cbn in Hj; lia).
    destruct Hc as [->|[->| ->]]; rewrite ?fo_F0, ?fo_F1, ?fo_F2, <- Z.add_assoc, ex13_words; left; reflexivity.
  - intros j Hj. cbn in Hj. lia.
  - intros i b Hi Hb. destruct i as [|[|[|i]]]; cbn [nth_error skipn X86MemStoreChain.ex5_store] in Hi; try (destruct i; discriminate);
      inversion Hi; subst b; try discriminate Hb; rewrite <- Z.add_assoc, ex13_words; reflexivity.
Qed.

Example a64_load_example :
  exists lc', a_load X86MemStoreChain.ex5_store ex13_existing 0 = Ok (ex13_code, lc') /\
  hword ex13_state HEAP_BASE = 1 /\ rget ex13_state TEMPORARY_TEMP = Some 777 /\
  exists s', exec_to (mk_image ex13_code) 1 ex13_state (padd 1 (List.length ex13_code)) s' /\
     st_eqB (abs_heap (HEAP_BASE + 256) s') (Heap.load_object 1 HEAP_BASE (abs_heap (HEAP_BASE + 256) ex13_state)) /\
     sget s' ex_sp 2 = Some 11 /\ sget s' ex_sp 3 = Some (HEAP_BASE + 128) /\ sget s' ex_sp 10 = Some 55 /\
     rget s' TEMPORARY_TEMP = Some 777.
Proof.
  assert (Hx : exists lc', a_load X86MemStoreChain.ex5_store ex13_existing 0 = Ok (ex13_code, lc')).
  { unfold ex13_code. destruct (a_load X86MemStoreChain.ex5_store ex13_existing 0) as [[cs lc']|] eqn:E; [now exists lc'|].
    vm_compute in E. discriminate E. }
  destruct Hx as [lc' Hx]. exists lc'. split; [exact Hx|].
  split; [exact (ex13_words 0)|]. split; [reflexivity|].
  destruct (A64MemTop.mk_image_code_labels ex13_code) as [HC HL]; [apply X86MemStore.nodupb_sound; vm_compute; reflexivity|].
  destruct (a64_load_full (mk_image ex13_code) 1 X86MemStoreChain.ex5_store ex13_existing 0 ex13_code lc' ex13_state ex_sp HEAP_BASE (HEAP_BASE + 192) (HEAP_BASE + 256) Hx ltac:(discriminate) HC HL)
    as (s' & ST & EQ & V & O & _).
  - split; [reflexivity|exact sp_ok_4096].
  - reflexivity.
  - exact (ex_blk 0 ltac:(lia)).
  - reflexivity.
  - exact ex13_share_ok.
  - intros x Hx'. destruct Hx' as (k & Hk & -> & Hhi). replace (X86Sem.HEAP_BASE + 64 * k) with (HEAP_BASE + (64 * k)) by (unfb; lia). rewrite ex13_words.
    cbn [List.length X86MemStoreChain.ex5_store]. unfold min_int, max_int, two63, HEAP_BASE.
    repeat match goal with |- context [?a =? ?b] => destruct (Z.eqb_spec a b) end; lia.
  - exists s'. split; [exact ST|]. split; [exact EQ|].
    destruct (V 0%nat _ eq_refl) as [V0 _]. destruct (V 1%nat _ eq_refl) as [_ V1]. destruct (V 4%nat _ eq_refl) as [V4 _].
    specialize (V1 ltac:(discriminate)). specialize (O 6%N ltac:(cbn; lia)).
    split; [|split; [|split]].
    + etransitivity; [exact V0|]. vm_compute; reflexivity.
    + etransitivity; [exact V1|]. vm_compute; reflexivity.
    + etransitivity; [exact V4|]. vm_compute; reflexivity.
    + etransitivity; [exact O|]. vm_compute. reflexivity.
Qed.
Print Assumptions a64_load_example.

