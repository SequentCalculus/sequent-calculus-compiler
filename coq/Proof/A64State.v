(* Characterisation lemmas for the accessors of Sem/A64Sem.astate, and a "location view": a
   temporary of the back end (register or spill slot relative to a fixed sp) read and written as
   one kind of location.  All instruction-selection proofs go through these lemmas only. *)
From Coq Require Import List ZArith NArith String Bool Lia FMapPositive.
From SCC Require Import Base.Sexp Lang.AxSyn Sem.AxSem Model.Backend Model.A64 Sem.A64Sem Generated.Constants.
Import ListNotations.
Open Scope Z_scope.

Lemma succ_pos_inj a b : N.succ_pos a = N.succ_pos b -> a = b.
Proof. intros H. apply (f_equal Pos.pred_N) in H. now rewrite !N.pos_pred_succ in H. Qed.

Lemma xget_xset_same s n v : xget (xset s n v) n = v.
Proof. unfold xget, xset; destruct v; cbn; [apply PM.gss | apply PM.grs]. Qed.
Lemma xget_xset_other s n m v : n <> m -> xget (xset s n v) m = xget s m.
Proof.
  intros H. unfold xget, xset; destruct v; cbn; [apply PM.gso | apply PM.gro];
    intro E; apply succ_pos_inj in E; congruence.
Qed.

Lemma areg_eqb_spec a b : reflect (a = b) (areg_eqb a b).
Proof.
  destruct a as [x| |], b as [y| |]; cbn; try (constructor; congruence).
  destruct (N.eqb_spec x y); constructor; congruence.
Qed.

(* a register the generated code may name as a variable temporary or scratch: a general-purpose one *)
Definition gp (r : areg) : Prop := match r with X _ => True | _ => False end.

Lemma rget_rset_same s r v : gp r -> rget (rset s r v) r = v.
Proof. destruct r; cbn; intros H; try tauto. apply xget_xset_same. Qed.
Lemma rget_rset_other s r r' v : r <> r' -> rget (rset s r v) r' = rget s r'.
Proof.
  intros H. destruct r as [n| |], r' as [m| |]; cbn; try reflexivity; try congruence.
  apply xget_xset_other; congruence.
Qed.
Lemma spv_rset s r v : r <> SP -> spv (rset s r v) = spv s.
Proof. destruct r; cbn; congruence. Qed.
Lemma stack_rset s r v : stack (rset s r v) = stack s. Proof. destruct r; reflexivity. Qed.
Lemma heap_rset s r v : heap (rset s r v) = heap s. Proof. destruct r; reflexivity. Qed.
Lemma out_rset s r v : out (rset s r v) = out s. Proof. destruct r; reflexivity. Qed.
Lemma flags_rset s r v : flags (rset s r v) = flags s. Proof. destruct r; reflexivity. Qed.
Lemma rget_set_flags s f r : rget (set_flags s f) r = rget s r. Proof. destruct r; reflexivity. Qed.
Lemma stack_set_flags s f : stack (set_flags s f) = stack s. Proof. reflexivity. Qed.
Lemma heap_set_flags s f : heap (set_flags s f) = heap s. Proof. reflexivity. Qed.
Lemma out_set_flags s f : out (set_flags s f) = out s. Proof. reflexivity. Qed.

Lemma key_inj a b : 0 <= a -> 0 <= b -> key a = key b -> a = b.
Proof. unfold key; intros Ha Hb H. apply (f_equal Z.pos) in H. rewrite !Z2Pos.id in H by lia. lia. Qed.

(* sp is 16-byte aligned (the hardware rule for sp-relative accesses) and the whole spill area
   [sp, sp + SPILL_SPACE) lies inside the stack region *)
Definition sp_ok (sp : Z) : Prop := sp mod 16 = 0 /\ STACK_LIMIT <= sp /\ sp + SPILL_SPACE <= STACK_TOP.
Definition frame_ok (s : astate) (sp : Z) : Prop := spv s = Some sp /\ sp_ok sp.
(* the stack pointer of the worked examples *)
Lemma sp_ok_4096 : sp_ok (STACK_TOP - 4096).
Proof. split; [reflexivity|split; apply Z.leb_le; reflexivity]. Qed.
Definition slot_ok (p : N) : Prop := (p < SPILL_NUM)%N.
Definition slot_addr (sp : Z) (p : N) : Z := sp + stack_offset p.

Lemma spill_space_val : SPILL_SPACE = 8 * Z.of_N SPILL_NUM.
Proof. reflexivity. Qed.

Lemma slot_addr_facts sp p :
  sp_ok sp -> slot_ok p ->
  let a := slot_addr sp p in
  a mod 8 = 0 /\ STACK_LIMIT <= a /\ a + 8 <= STACK_TOP /\ sp <= a /\ 0 <= a.
Proof.
  intros (Hal & Hlo & Hhi) Hp. unfold slot_addr, stack_offset, slot_ok in *.
  rewrite spill_space_val in *. unfold STACK_LIMIT, STACK_TOP in *.
  assert (0 <= Z.of_N p < Z.of_N SPILL_NUM) by lia.
  assert (sp mod 8 = 0).
  { rewrite (Z.div_mod sp 16) by lia. rewrite Hal, Z.add_0_r.
    replace (16 * (sp / 16)) with ((2 * (sp / 16)) * 8) by lia. apply Z.mod_mul. lia. }
  repeat split; try lia.
  replace (sp + (8 * Z.of_N SPILL_NUM - 8 * (Z.of_N p + 1))) with (sp + (Z.of_N SPILL_NUM - Z.of_N p - 1) * 8) by lia.
  rewrite Z.mod_add by lia. assumption.
Qed.

Lemma slot_addr_inj sp p q : slot_addr sp p = slot_addr sp q -> p = q.
Proof. unfold slot_addr, stack_offset. intros H. lia. Qed.

Lemma in_stack_not_heap a : in_stack a = true -> in_heap a = false.
Proof.
  unfold in_stack, in_heap, STACK_LIMIT, STACK_TOP, HEAP_BASE, HEAP_SIZE.
  intros H. apply andb_true_iff in H as [H1 H2]. apply Z.leb_le in H1, H2.
  apply andb_false_iff. right. apply Z.leb_gt. lia.
Qed.

Definition sget (s : astate) (sp : Z) (p : N) : option Z := PM.find (key (slot_addr sp p)) (stack s).
Definition sset (s : astate) (sp : Z) (p : N) (v : option Z) : astate :=
  {| regs := regs s; spv := spv s; heap := heap s;
     stack := match v with Some z => PM.add (key (slot_addr sp p)) z (stack s) | None => PM.remove (key (slot_addr sp p)) (stack s) end;
     flags := flags s; out := out s; hw := hw s |}.

Lemma mload_slot s sp p : sp_ok sp -> slot_ok p -> mload s (slot_addr sp p) = MOk (sget s sp p).
Proof.
  intros F P. destruct (slot_addr_facts sp p F P) as (A & L & H & _ & _).
  unfold mload, aligned. rewrite A. cbn [Z.eqb negb].
  assert (in_stack (slot_addr sp p) = true) as IS.
  { unfold in_stack. apply andb_true_iff; split; apply Z.leb_le; lia. }
  rewrite (in_stack_not_heap _ IS), IS. reflexivity.
Qed.
Lemma mstore_slot s sp p v : sp_ok sp -> slot_ok p -> mstore s (slot_addr sp p) v = MOk (sset s sp p v).
Proof.
  intros F P. destruct (slot_addr_facts sp p F P) as (A & L & H & _ & _).
  unfold mstore, aligned. rewrite A. cbn [Z.eqb negb].
  assert (in_stack (slot_addr sp p) = true) as IS.
  { unfold in_stack. apply andb_true_iff; split; apply Z.leb_le; lia. }
  rewrite (in_stack_not_heap _ IS), IS. reflexivity.
Qed.

Lemma sget_sset_same s sp p v : sget (sset s sp p v) sp p = v.
Proof. unfold sget, sset; destruct v; cbn; [apply PM.gss | apply PM.grs]. Qed.
Lemma sget_sset_other s sp p q v :
  sp_ok sp -> slot_ok p -> slot_ok q -> p <> q -> sget (sset s sp p v) sp q = sget s sp q.
Proof.
  intros F P Q H. destruct (slot_addr_facts sp p F P) as (_ & _ & _ & _ & Ap).
  destruct (slot_addr_facts sp q F Q) as (_ & _ & _ & _ & Aq).
  unfold sget, sset; destruct v; cbn; [apply PM.gso | apply PM.gro];
    intro E; apply key_inj in E; auto; apply slot_addr_inj in E; congruence.
Qed.
Lemma rget_sset s sp p v r : rget (sset s sp p v) r = rget s r. Proof. destruct r; reflexivity. Qed.
Lemma sget_rset s sp r v p : sget (rset s r v) sp p = sget s sp p. Proof. destruct r; reflexivity. Qed.
Lemma sget_set_flags s sp f p : sget (set_flags s f) sp p = sget s sp p. Proof. reflexivity. Qed.
Lemma heap_sset s sp p v : heap (sset s sp p v) = heap s. Proof. reflexivity. Qed.
Lemma out_sset s sp p v : out (sset s sp p v) = out s. Proof. reflexivity. Qed.
Lemma flags_sset s sp p v : flags (sset s sp p v) = flags s. Proof. reflexivity. Qed.

Lemma frame_ok_rset s sp r v : r <> SP -> frame_ok s sp -> frame_ok (rset s r v) sp.
Proof. intros H (A & B). split; [rewrite spv_rset; auto | exact B]. Qed.
Lemma frame_ok_sset s sp p v : frame_ok s sp -> frame_ok (sset s sp p v) sp.
Proof. intros (A & B). split; [exact A | exact B]. Qed.
Lemma frame_ok_set_flags s sp f : frame_ok s sp -> frame_ok (set_flags s f) sp.
Proof. intros (A & B). split; [exact A | exact B]. Qed.

Definition lget (s : astate) (sp : Z) (t : atemp) : option Z :=
  match t with AR r => rget s r | AS p => sget s sp p end.
Definition lset (s : astate) (sp : Z) (t : atemp) (v : option Z) : astate :=
  match t with AR r => rset s r v | AS p => sset s sp p v end.
Definition loc_ok (t : atemp) : Prop :=
  match t with AR r => gp r | AS p => slot_ok p end.

Lemma lget_lset_same s sp t v : loc_ok t -> lget (lset s sp t v) sp t = v.
Proof. destruct t; cbn; intros; [apply rget_rset_same; auto | apply sget_sset_same]. Qed.
Lemma lget_lset_other s sp t u v :
  sp_ok sp -> loc_ok t -> loc_ok u -> t <> u -> lget (lset s sp t v) sp u = lget s sp u.
Proof.
  intros F T U H. destruct t as [r|p], u as [r'|q]; cbn in *.
  - apply rget_rset_other; congruence.
  - apply sget_rset.
  - apply rget_sset.
  - apply sget_sset_other; auto; congruence.
Qed.
Lemma gp_not_sp r : gp r -> r <> SP. Proof. destruct r; cbn; congruence || tauto. Qed.
Lemma frame_ok_lset s sp t v : loc_ok t -> frame_ok s sp -> frame_ok (lset s sp t v) sp.
Proof. destruct t; cbn; intros; [apply frame_ok_rset; auto using gp_not_sp | apply frame_ok_sset]; auto. Qed.
Lemma heap_lset s sp t v : heap (lset s sp t v) = heap s. Proof. destruct t; [apply heap_rset|reflexivity]. Qed.
Lemma out_lset s sp t v : out (lset s sp t v) = out s. Proof. destruct t; [apply out_rset|reflexivity]. Qed.
Lemma flags_lset s sp t v : flags (lset s sp t v) = flags s. Proof. destruct t; [apply flags_rset|reflexivity]. Qed.
Lemma lget_set_flags s sp f t : lget (set_flags s f) sp t = lget s sp t.
Proof. destruct t; [apply rget_set_flags|reflexivity]. Qed.

Lemma atemp_eqb_spec a b : reflect (a = b) (match a, b with AR x, AR y => areg_eqb x y | AS p, AS q => N.eqb p q | _, _ => false end).
Proof.
  destruct a as [x|x], b as [y|y]; try (constructor; congruence).
  - destruct (areg_eqb_spec x y); constructor; congruence.
  - destruct (N.eqb_spec x y); constructor; congruence.
Qed.
Definition atemp_eqb (a b : atemp) : bool :=
  match a, b with AR x, AR y => areg_eqb x y | AS p, AS q => N.eqb p q | _, _ => false end.

Lemma run_straight_app im a b s :
  run_straight im (a ++ b) s = match run_straight im a s with MOk s' => run_straight im b s' | MFault w => MFault w end.
Proof. revert s; induction a as [|c a IH]; intros s; cbn; [reflexivity|]. destruct (step im c s); auto. Qed.

(* the constants the proofs rely on (re-checked against the regenerated values) *)
Lemma TEMP_is : TEMP = X 2. Proof. reflexivity. Qed.
Lemma TEMP2_is : TEMP2 = X 3. Proof. reflexivity. Qed.
Lemma TEMPORARY_TEMP_is : TEMPORARY_TEMP = X 10. Proof. reflexivity. Qed.
Lemma SPILL_TEMP_is : SPILL_TEMP = 0%N. Proof. reflexivity. Qed.
Lemma SPILL_NUM_is : SPILL_NUM = 256%N. Proof. reflexivity. Qed.

Lemma ea_sp s sp p k : frame_ok s sp -> ea s SP (stack_offset p) k = k (slot_addr sp p).
Proof.
  intros (H & A & _). unfold ea, need. cbn [rget]. rewrite H, A. reflexivity.
Qed.

Section Steps.
Variable im : image.
Variables (s : astate) (sp : Z).
Hypothesis F : frame_ok s sp.

Lemma step_MOVR a b : step im (MOVR a b) s = Next (rset s a (rget s b)).
Proof. reflexivity. Qed.
Lemma step_LDR_slot a p : slot_ok p -> step im (LDR a SP (stack_offset p)) s = Next (rset s a (sget s sp p)).
Proof. intros P. cbn [step]. rewrite (ea_sp s sp) by exact F. unfold withm. rewrite mload_slot; auto. apply F. Qed.
Lemma step_STR_slot a p : slot_ok p -> step im (STR a SP (stack_offset p)) s = Next (sset s sp p (rget s a)).
Proof. intros P. cbn [step]. rewrite (ea_sp s sp) by exact F. unfold withm. rewrite mstore_slot; auto. apply F. Qed.
Lemma step_arith3 f d a b x y :
  rget s a = Some x -> rget s b = Some y -> arith3 f s d a b = Next (rset s d (Some (wrap (f x y)))).
Proof. intros A B. unfold arith3, need. now rewrite A, B. Qed.
End Steps.
