(* C06, forward simulation, part 7: closures without captured variables (`create v : T = (){ clauses }`,
   `invoke v D`).  Such a closure needs no heap block: its first temporary is the null pointer and its
   second temporary the address of the code the Create statement emitted after its continuation - a jump
   table (one `jmp near` of 5 bytes per destructor) followed by the clause bodies, or the single clause.
   This file: what `code_statement` emits for Create / Invoke, where the clause
   bodies sit in the image and how an indirect jump reaches them (`clo_ok`), and the two statement-level
   simulation theorems. *)
From Coq Require Import List ZArith NArith String Bool Lia FMapPositive.
From SCC Require Import Base.Sexp Lang.AxSyn Sem.AxSem Model.ParMoves Model.Backend Model.X86 Sem.X86Sem Sem.X86Wf
     Model.Linearize Model.LinCheck Generated.Constants Proof.LinBasics
     Proof.X86State Proof.X86Sel Proof.X86Exec Proof.X86ParMoves Proof.SubstGraph Proof.X86Subst
     Proof.X86SimRel Proof.X86SimStmt Proof.X86SimAddr.
From SCC Require Export Proof.SimFrag.
Import ListNotations.
Open Scope Z_scope.
Open Scope list_scope.
(* the definitions of Proof/SimFrag.v under this module's name, for qualified uses *)
Notation is_nil := SimFrag.is_nil (only parsing).
Notation find_clause_pos := SimFrag.find_clause_pos (only parsing).
Notation cls_sig_length := SimFrag.cls_sig_length (only parsing).
Notation sig_match_join := SimFrag.sig_match_join (only parsing).
Notation split_last1_inv := SimFrag.split_last1_inv (only parsing).
Notation find_clause_total := SimFrag.find_clause_total (only parsing).
Notation split_last1_app := SimFrag.split_last1_app (only parsing).


Section CC.
Variables (types : list tydecl) (env : ctx) (fresh : string).
Fixpoint clauses_code (l : list clause) (lc : N) {struct l} : res (list xcode * N) :=
  match l with
  | [] => Ok ([], lc)
  | (x, cx, body) :: r =>
      dor ld <- x_load env cx lc;
      let '(cl, lc1) := ld in
      dor bd <- xcs types body (cx ++ env) lc1;
      let '(cb, lc2) := bd in
      dor rs <- clauses_code r lc2;
      let '(cr, lc3) := rs in
      Ok ([LAB (fresh +++ "_" +++ show_ident x)] ++ cl ++ cb ++ cr, lc3)
  end.
End CC.

Definition table_or_nil (cls : list clause) (fresh : string) : list xcode :=
  if Nat.leb (List.length cls) 1 then [] else code_table x86_backend cls fresh.

Lemma cs_create types v t env cls next c lc code lc' :
  xcs types (Create v t (Some env) cls next) c lc = Ok (code, lc') ->
  exists rest cenv c1 lc1 tmpv c3 lc3 c5,
    Backend.split_last (List.length env) c = Ok (rest, cenv) /\
    x_store cenv rest lc = Ok (c1, lc1) /\
    xvt (rest ++ [mkb v Cns t]) (idn v) = Ok tmpv /\
    xcs types next (rest ++ [mkb v Cns t]) (lc1 + 1)%N = Ok (c3, lc3) /\
    clauses_code types cenv (type_label t (lc1 + 1)%N) cls lc3 = Ok (c5, lc') /\
    code = c1 ++ x_load_label tmpv (type_label t (lc1 + 1)%N) ++ c3 ++
           ([LAB (type_label t (lc1 + 1)%N)] ++ table_or_nil cls (type_label t (lc1 + 1)%N)) ++ c5.
Proof. exact (BackendInv.cs_create x86_backend types v t env cls next c lc code lc'). Qed.

Lemma cs_invoke types v tag t args c lc code lc' :
  xcs types (Invoke v tag t args) c lc = Ok (code, lc') ->
  exists tmpv d, xvt c (idn v) = Ok tmpv /\ lookup_type types t = Ok d /\ lc' = lc /\
    if Nat.leb (List.length (txtors d)) 1 then code = x_jump tmpv
    else exists k, xtor_position (txtors d) tag 0 = Ok k /\ code = x_add_and_jump tmpv (jump_length k).
Proof. exact (BackendInv.cs_invoke x86_backend types v tag t args c lc code lc'). Qed.

(* the code of a statement of the fragment ends with an instruction of non-zero size *)
Definition ends_nz (cs : list xcode) : Prop := exists pre c, cs = pre ++ [c] /\ 0 < isize c.
Lemma ends_nz_app a b : ends_nz b -> ends_nz (a ++ b).
Proof. intros (pre & c & -> & H). exists (a ++ pre), c. split; [now rewrite app_assoc|exact H]. Qed.
Lemma ends_nz_last a c : 0 < isize c -> ends_nz (a ++ [c]).
Proof. intros H. exists a, c. auto. Qed.

Lemma clauses_ends_nz types env fresh : forall cls lc c5 lc',
  Forall (fun c => forall ct lc code lc', stmt_cf (cl_body c) = true -> xcs types (cl_body c) ct lc = Ok (code, lc') -> ends_nz code) cls ->
  cls <> [] -> clauses_cf cls = true ->
  clauses_code types env fresh cls lc = Ok (c5, lc') -> ends_nz c5.
Proof.
  induction cls as [|[[x cx] body] r IH]; intros lc c5 lc' FA NE CF H; [congruence|].
  cbn [clauses_code] in H.
  cs_bind H as [cl lc1] eqn:LD.
  cs_bind H as [cb lc2] eqn:BD.
  cs_bind H as [cr lc3] eqn:RS.
  inversion H; subst c5 lc'. inversion FA as [|? ? P0 FA']; subst.
  cbn [clauses_cf forallb cl_ctx cl_body fst snd] in CF. apply andb_true_iff in CF as [CF0 CF']. apply andb_true_iff in CF0 as [_ SB].
  apply (ends_nz_app [_]), ends_nz_app. destruct r as [|c' r'].
  - cbn [clauses_code] in RS. inversion RS; subst. rewrite app_nil_r. exact (P0 _ _ _ _ SB BD).
  - apply ends_nz_app. eapply IH; eauto. discriminate.
Qed.

Lemma cs_ends_nz types : forall s c lc code lc',
  stmt_cf s = true -> xcs types s c lc = Ok (code, lc') -> ends_nz code.
Proof.
  intros s. induction s using stmt_ind2; intros c lc code lc' CF CS; cbn [stmt_cf] in CF; try discriminate.
  - apply andb_true_iff in CF as [_ CF].
    destruct (cs_substitute _ _ _ _ _ _ _ CS) as (c1 & lc1 & c2 & c3 & _ & _ & NX & ->). apply ends_nz_app, ends_nz_app. eauto.
  - destruct (cs_call _ _ _ _ _ _ _ CS) as (-> & _). apply (ends_nz_last []). cbn; lia.
  - destruct (stmt_cf_create v t env cls s CF) as (-> & NE & CFc & CFn).
    destruct (cs_create _ _ _ _ _ _ _ _ _ _ CS) as (rest & cenv & c1 & lc1 & tmpv & c3 & lc3 & c5 & _ & _ & _ & _ & CC & ->).
    apply ends_nz_app, ends_nz_app, ends_nz_app, ends_nz_app. eapply clauses_ends_nz; eauto.
  - destruct (cs_invoke _ _ _ _ _ _ _ _ _ CS) as (tmpv & d & _ & _ & _ & CD).
    destruct (Nat.leb (List.length (txtors d)) 1).
    + subst code. destruct tmpv; cbn [x_jump]; [apply (ends_nz_last [])|apply (ends_nz_last [_])]; cbn; lia.
    + destruct CD as (k & _ & ->). destruct tmpv; cbn [x_add_and_jump]; [apply (ends_nz_last [_])|apply (ends_nz_last [_; _])]; cbn; lia.
  - destruct (cs_literal _ _ _ _ _ _ _ _ CS) as (tv & c2 & _ & NX & ->). apply ends_nz_app. eauto.
  - destruct (cs_op _ _ _ _ _ _ _ _ _ _ CS) as (tv & ta & tb & c2 & _ & _ & _ & NX & ->). apply ends_nz_app. eauto.
  - destruct (cs_print _ _ _ _ _ _ _ _ CS) as (tv & c2 & _ & NX & ->). apply ends_nz_app. eauto.
  - apply andb_true_iff in CF as [CF1 CF2].
    destruct (cs_ifc _ _ _ _ _ _ _ _ _ _ CS) as (ta & c1 & c2 & lc2 & c3 & _ & _ & _ & TH & ->).
    apply ends_nz_app, ends_nz_app, ends_nz_app. eauto.
  - destruct (cs_exit _ _ _ _ _ _ CS) as (tv & _ & -> & _). apply ends_nz_last. cbn; lia.
Qed.

(* where clause k sits in the clause code *)
Lemma clauses_code_nth types env fresh : forall cls lc c5 lc' k x cx body,
  clauses_code types env fresh cls lc = Ok (c5, lc') -> nth_error cls k = Some (x, cx, body) ->
  exists pre lc0 cl lc1 cb lc2 post,
    c5 = pre ++ [LAB (fresh +++ "_" +++ show_ident x)] ++ cl ++ cb ++ post /\
    x_load env cx lc0 = Ok (cl, lc1) /\ xcs types body (cx ++ env) lc1 = Ok (cb, lc2) /\ (k = O -> pre = []).
Proof. exact (BackendInv.clauses_code_nth x86_backend types env fresh). Qed.

(* the jump table *)
Lemma code_table_nth cls fresh k c :
  nth_error cls k = Some c -> nth_error (code_table x86_backend cls fresh) k = Some (JMPLN (fresh +++ "_" +++ show_ident (cl_xtor c))).
Proof.
  unfold code_table. cbn [b_jump_label_fixed x86_backend x86_backend_with]. revert k.
  induction cls as [|c0 r IH]; intros k H; [destruct k; discriminate|]. cbn [flat_map app].
  destruct k as [|k]; cbn [nth_error] in *; [inversion H; reflexivity|auto].
Qed.
Lemma code_table_length cls fresh : List.length (code_table x86_backend cls fresh) = List.length cls.
Proof. unfold code_table. cbn [b_jump_label_fixed x86_backend x86_backend_with]. induction cls; cbn; auto. Qed.
Lemma code_table_size cls fresh : forall k, (k <= List.length cls)%nat -> size_of (firstn k (code_table x86_backend cls fresh)) = 5 * Z.of_nat k.
Proof.
  unfold code_table. cbn [b_jump_label_fixed x86_backend x86_backend_with].
  induction cls as [|c0 r IH]; intros k H; cbn [List.length] in H.
  - destruct k; [reflexivity|lia].
  - destruct k as [|k]; [reflexivity|]. cbn [flat_map app firstn size_of isize]. rewrite IH by lia. lia.
Qed.

Lemma nh_sub_label f y : is_hash_label f = false -> is_hash_label (f +++ "_" +++ y) = false.
Proof. exact (hash_name_sub f y). Qed.
Lemma x_load_nil cx lc : x_load [] cx lc = Ok ([], lc).
Proof. reflexivity. Qed.

Lemma wrap_small_range z : 0 <= z < 4611686018427387904 + 2147483648 -> wrap z = z.
Proof. unfold wrap, two63, two64. intros H. rewrite Z.mod_small by lia. lia. Qed.

Section Clo.
Variable im : image.
Variable p : prog.
Hypothesis IMG : img_ok im.
Hypothesis SMALL : forall pc a, PM.find pc (addr_of im) = Some a -> a < 4611686018427387904.
Hypothesis ENC : forall pc c, PM.find pc (code im) = Some c -> instr_wf c = true.

(* what the second temporary of a closure variable points to: clause k of a closure whose clauses are the
   declared destructors in declaration order is entered, by an indirect jump to a (one clause) or to
   a + 5k (jump table), at the code generated for its body, with the state unchanged; the body is linearly
   well-typed in the clause context and belongs to the fragment *)
Definition clo_ok (a : Z) (tn : ident) (cls : list clause) : Prop :=
  cls_ok (sigs_of p) (Decl tn) cls = true /\ 0 <= a < 4611686018427387904 /\
  forall k c, nth_error cls k = Some c ->
    exists i pcb lcb cb lcb',
      PM.find (key (a + (if Nat.leb (List.length cls) 1 then 0 else jump_length (N.of_nat k)))) (index_at im) = Some i /\
      (forall s, exec_to im i s pcb s) /\
      xcs (ptypes p) (cl_body c) (cl_ctx c) lcb = Ok (cb, lcb') /\ code_at im pcb cb /\ labels_at_nh im pcb cb /\
      lin_check (sigs_of p) (cl_ctx c) (cl_body c) = true /\ stmt_cf (cl_body c) = true /\ ctx_cf (cl_ctx c) = true.

(* arriving at table entry k *)
Definition entry_index (pcl : positive) (k : nat) : positive := match k with O => pcl | S _ => padd pcl (1 + k) end.
Lemma table_entry pcl fresh cls R a :
  code_at im pcl ([LAB fresh] ++ code_table x86_backend cls fresh ++ R) ->
  PM.find pcl (addr_of im) = Some a -> PM.find (key a) (index_at im) = Some pcl ->
  forall k, (k < List.length cls)%nat ->
    PM.find (key (a + 5 * Z.of_nat k)) (index_at im) = Some (entry_index pcl k) /\
    forall s, exec_to im (entry_index pcl k) s (padd pcl (1 + k)) s.
Proof.
  intros CA A IX k Hk.
  set (tb := code_table x86_backend cls fresh) in *.
  assert (LT : List.length tb = List.length cls) by apply code_table_length.
  assert (NTH : forall j cj, nth_error tb j = Some cj -> nth_error ([LAB fresh] ++ tb ++ R) (1 + j) = Some cj).
  { intros j cj Ej. cbn [app Nat.add nth_error]. rewrite nth_error_app1; [exact Ej|]. apply nth_error_Some. congruence. }
  assert (ADDR : forall j, (j < List.length cls)%nat -> PM.find (padd pcl (1 + j)) (addr_of im) = Some (a + 5 * Z.of_nat j)).
  { intros j Hj. destruct (nth_error tb j) as [cj|] eqn:Ej; [|apply nth_error_None in Ej; lia].
    rewrite (addr_along im IMG _ pcl a CA A (1 + j) cj (NTH j cj Ej)).
    f_equal. cbn [app Nat.add firstn size_of isize]. rewrite firstn_app.
    replace (j - List.length tb)%nat with O by lia. cbn [firstn]. rewrite app_nil_r.
    unfold tb. rewrite code_table_size by lia. lia. }
  destruct k as [|k]; cbn [entry_index].
  - rewrite Z.mul_0_r, Z.add_0_r. split; [exact IX|]. intros s.
    apply code_at_cons in CA as [C0 _]. eapply exec_next; [exact C0|reflexivity|]. cbn [Nat.add padd]. apply exec_refl.
  - split; [|intros s; apply exec_refl].
    destruct (nth_error tb k) as [ck|] eqn:Ek; [|apply nth_error_None in Ek; lia].
    destruct (nth_error tb (S k)) as [ck'|] eqn:Ek'; [|apply nth_error_None in Ek'; lia].
    assert (CK : PM.find (padd pcl (1 + k)) (code im) = Some ck) by (apply CA, NTH, Ek).
    assert (CK' : PM.find (Pos.succ (padd pcl (1 + k))) (code im) = Some ck').
    { rewrite <- padd_succ. apply (CA (S (1 + k))). apply (NTH (S k)), Ek'. }
    assert (SZ : isize ck = 5).
    { unfold tb, code_table in Ek. cbn [b_jump_label_fixed x86_backend x86_backend_with] in Ek.
      clear -Ek. revert k Ek. induction cls as [|c0 r IH]; intros k Ek; [destruct k; discriminate|].
      cbn [flat_map app] in Ek. destruct k; cbn [nth_error] in Ek; [inversion Ek; reflexivity|eauto]. }
    pose proof (io_index im IMG _ ck ck' _ CK CK' ltac:(lia) (ADDR k ltac:(lia))) as IXk.
    rewrite SZ in IXk. replace (a + 5 * Z.of_nat (S k)) with (a + 5 * Z.of_nat k + 5) by lia.
    rewrite IXk. f_equal. rewrite <- padd_succ. reflexivity.
Qed.

(* the closure code a Create statement emits establishes clo_ok for the address of its label *)
Lemma create_layout pc P fresh tn cls c5 lc3 lc5 :
  code_at im pc (P ++ ([LAB fresh] ++ table_or_nil cls fresh) ++ c5) ->
  labels_at_nh im pc (P ++ ([LAB fresh] ++ table_or_nil cls fresh) ++ c5) ->
  ends_nz P -> is_hash_label fresh = false ->
  clauses_code (ptypes p) [] fresh cls lc3 = Ok (c5, lc5) ->
  cls <> [] -> cls_ok (sigs_of p) (Decl tn) cls = true ->
  (forall c, In c cls -> lin_check (sigs_of p) (cl_ctx c) (cl_body c) = true /\ stmt_cf (cl_body c) = true /\ ctx_cf (cl_ctx c) = true) ->
  exists a, label_addr im fresh = Some a /\ clo_ok a tn cls.
Proof.
  intros CA LA (pre & cz & -> & SZ) NH CC NE CO ST.
  (* the label, its address, and the way back from the address *)
  rewrite <- !app_assoc in CA, LA. cbn [app] in CA, LA.
  pose proof CA as CA'. apply code_at_app in CA' as [_ CAz]. apply code_at_cons in CAz as [CZ CAl].
  set (pcz := padd pc (List.length pre)) in *. set (pcl := Pos.succ pcz) in *.
  pose proof CAl as CAl'. apply code_at_cons in CAl' as [CL CAt].
  destruct (io_addr im IMG pcz cz CZ) as (az & AZ & _).
  pose proof (io_next im IMG pcz cz _ az CZ CL AZ) as AL.
  pose proof (io_index im IMG pcz cz _ az CZ CL SZ AZ) as IX. fold pcl in AL, IX.
  set (a := az + isize cz) in *.
  assert (PCL : padd pc (List.length pre + 1) = pcl) by (unfold pcl, pcz; rewrite padd_add; reflexivity).
  assert (FL : find_label (labels im) fresh = Some pcl).
  { rewrite (LA (List.length pre + 1)%nat fresh); [now rewrite PCL| |exact NH].
    rewrite nth_error_app2 by lia. replace (_ + 1 - _)%nat with 1%nat by lia. reflexivity. }
  exists a. split; [exact (label_addr_at im fresh pcl a FL AL)|].
  split; [exact CO|]. split.
  { split; [|exact (SMALL pcl a AL)]. destruct (io_addr im IMG pcl _ CL) as (a' & A' & GE). unfold CODE_BASE in GE. assert (a' = a) by congruence. lia. }
  intros k c Hk.
  destruct c as [[x cx] body].
  destruct (clauses_code_nth _ _ _ _ _ _ _ k x cx body CC Hk) as (pre5 & lc0 & cl & lc1 & cb & lc2 & post5 & E5 & LD & BD & PRE0).
  rewrite x_load_nil in LD. inversion LD; subst cl lc1. rewrite app_nil_r in BD. cbn [app] in E5.
  destruct (ST _ (nth_error_In _ _ Hk)) as (S1 & S2 & S3). cbn [cl_ctx cl_body fst snd] in *.
  assert (Lk : (k < List.length cls)%nat) by (apply nth_error_Some; congruence).
  (* position of the clause label and of the body *)
  set (tb := table_or_nil cls fresh) in *.
  set (lx := fresh +++ "_" +++ show_ident x) in *.
  assert (CODE : code_at im pcl ([LAB fresh] ++ tb ++ pre5 ++ [LAB lx] ++ cb ++ post5)).
  { rewrite E5 in CAl. exact CAl. }
  assert (LABS : labels_at_nh im pcl ([LAB fresh] ++ tb ++ pre5 ++ [LAB lx] ++ cb ++ post5)).
  { apply labels_at_nh_app in LA as [_ LA]. change (cz :: LAB fresh :: ?r) with ([cz] ++ LAB fresh :: r) in LA.
    apply labels_at_nh_app in LA as [_ LA]. cbn [List.length] in LA. rewrite <- padd_add, PCL in LA.
    rewrite E5 in LA. exact LA. }
  set (jl := (1 + List.length tb + List.length pre5)%nat).
  assert (NL : nth_error ([LAB fresh] ++ tb ++ pre5 ++ [LAB lx] ++ cb ++ post5) jl = Some (LAB lx)).
  { unfold jl. cbn [app Nat.add nth_error]. rewrite nth_error_app2 by lia. rewrite nth_error_app2 by lia.
    replace (_ - _ - _)%nat with O by lia. reflexivity. }
  pose proof (code_at_nth im pcl _ jl _ CODE NL) as CLx.
  pose proof (LABS jl _ NL (nh_sub_label fresh (show_ident x) NH)) as FLx.
  assert (CB : code_at im (padd pcl (S jl)) cb /\ labels_at_nh im (padd pcl (S jl)) cb).
  { pose proof CODE as CODE'. pose proof LABS as LABS'.
    replace ([LAB fresh] ++ tb ++ pre5 ++ [LAB lx] ++ cb ++ post5)
      with (([LAB fresh] ++ tb ++ pre5 ++ [LAB lx]) ++ cb ++ post5) in CODE', LABS'
      by (rewrite <- !app_assoc; reflexivity).
    apply code_at_app in CODE' as [_ CODE']. apply code_at_app in CODE' as [CODE' _].
    apply labels_at_nh_app in LABS' as [_ LABS']. apply labels_at_nh_app in LABS' as [LABS' _].
    replace (List.length ([LAB fresh] ++ tb ++ pre5 ++ [LAB lx])) with (S jl) in CODE', LABS'
      by (unfold jl; rewrite !app_length; cbn [List.length]; lia).
    auto. }
  destruct CB as [CB LB].
  (* from the clause label into the body *)
  assert (INTO : forall s, exec_to im (padd pcl jl) s (padd pcl (S jl)) s).
  { intros s. eapply exec_next; [exact CLx|reflexivity|]. rewrite <- padd_succ. apply exec_refl. }
  destruct (Nat.leb (List.length cls) 1) eqn:LE.
  - (* a single clause, no table: the label of the closure is followed by the label of the clause *)
    exists pcl, (padd pcl (S jl)), lc0, cb, lc2.
    split; [rewrite Z.add_0_r; exact IX|]. split; [|repeat split; auto].
    assert (TB : table_or_nil cls fresh = []) by (unfold table_or_nil; now rewrite LE).
    assert (K0 : k = O) by (apply Nat.leb_le in LE; lia). subst k.
    assert (P5 : pre5 = []) by (apply PRE0; reflexivity).
    intros s. assert (J1 : jl = 1%nat) by (unfold jl, tb; rewrite TB, P5; reflexivity).
    apply code_at_cons in CODE as [C0 _]. eapply exec_next; [exact C0|reflexivity|].
    specialize (INTO s). rewrite J1 in INTO. cbn [padd] in INTO. rewrite J1. cbn [padd]. exact INTO.
  - (* the jump table *)
    assert (TB : tb = code_table x86_backend cls fresh) by (unfold tb, table_or_nil; now rewrite LE).
    rewrite TB in CODE.
    destruct (table_entry pcl fresh cls _ a CODE AL IX k Lk) as (IXk & ARR).
    exists (entry_index pcl k), (padd pcl (S jl)), lc0, cb, lc2.
    split; [unfold jump_length; rewrite nat_N_Z; exact IXk|]. split; [|repeat split; auto].
    intros s. eapply exec_to_trans; [apply ARR|].
    assert (CJ : PM.find (padd pcl (1 + k)) (code im) = Some (JMPLN lx)).
    { apply CODE. cbn [app Nat.add nth_error]. rewrite nth_error_app1 by (rewrite code_table_length; lia).
      apply (code_table_nth cls fresh k (x, cx, body) Hk). }
    eapply exec_jump; [exact CJ|cbn [step]; unfold goto_label; rewrite FLx; reflexivity|]. apply INTO.
Qed.

Local Notation rel := (rel clo_ok).

Lemma local_load_label t l : lok t = true -> local_code (x_load_label t l) = true.
Proof.
  intros H. destruct t as [r|q]; cbn [x_load_label local_code forallb local_instr lok] in *.
  - now rewrite H.
  - change STACK with 0%N. change TEMP with 1%N. cbn [nz N.eqb negb andb]. now rewrite H.
Qed.
Lemma load_label_ok s sp t l a :
  frame_ok s sp -> loc_ok t -> t <> XR TEMP -> label_addr im l = Some a ->
  exists s', exec_straight im (x_load_label t l) s = Some s' /\ lget s' sp t = Some a /\ preserved s s' sp t.
Proof.
  intros F T NT LA. assert (SP : sp_ok sp) by apply F.
  unfold x_load_label. destruct t as [tr|tp]; cbn [loc_ok] in T.
  - cbn [exec_straight step]. rewrite LA. eexists; split; [reflexivity|]. split; [rd; reflexivity|pres].
  - cbn [exec_straight]. change (step im (LEAL TEMP l) s) with (match label_addr im l with Some t => Next (rset s TEMP (Some t)) | None => Fault ("undefined-label " ++ l)%string s end).
    rewrite LA. cbv iota beta. rewrite (step_MOVS_slot im _ sp) by (frame || exact T).
    eexists; split; [reflexivity|]. split; [rd; reflexivity|pres].
Qed.

Lemma x_store_nil c lc : x_store [] c lc = dor t <- x_fresh Fst c; Ok (x_load_immediate t 0, lc).
Proof. reflexivity. Qed.

Theorem sim_create c e s sp v tn cls next lc code lc' pc :
  rel c e s sp -> NoDup (ids (c ++ [mkb v Cns (Decl tn)])) ->
  xcs (ptypes p) (Create v (Decl tn) (Some []) cls next) c lc = Ok (code, lc') ->
  code_at im pc code -> labels_at_nh im pc code ->
  is_hash_label (type_label (Decl tn) (lc + 1)%N) = false ->
  cls <> [] -> stmt_cf next = true -> cls_ok (sigs_of p) (Decl tn) cls = true ->
  (forall cl, In cl cls -> lin_check (sigs_of p) (cl_ctx cl) (cl_body cl) = true /\ stmt_cf (cl_body cl) = true /\ ctx_cf (cl_ctx cl) = true) ->
  exists c12 c3 lc3 rest s',
    code = c12 ++ c3 ++ rest /\
    xcs (ptypes p) next (c ++ [mkb v Cns (Decl tn)]) (lc + 1)%N = Ok (c3, lc3) /\
    exec_straight im c12 s = Some s' /\
    rel (c ++ [mkb v Cns (Decl tn)]) (e ++ [(v, VClo tn cls [])]) s' sp /\ frame_eq s s' sp.
Proof.
  intros R ND CS CA LA NH NE CFn CO ST.
  destruct (cs_create _ _ _ _ _ _ _ _ _ _ CS) as (rest & cenv & c1 & lc1 & tmpv & c3 & lc3 & c5 & SL & STO & TV & NX & CC & ->).
  cbn [List.length] in SL. rewrite split_last0 in SL. inversion SL; subst rest cenv. clear SL.
  rewrite x_store_nil in STO. destruct (x_fresh Fst c) as [t1|] eqn:T1; cbn [rbind] in STO; [|discriminate].
  inversion STO; subst c1 lc1. clear STO.
  assert (T1' : xtpos Fst (List.length c) = Ok t1) by exact T1.
  assert (T2 : xtpos Snd (List.length c) = Ok tmpv).
  { rewrite <- TV. symmetry. change (idn v) with (idn (bvar (mkb v Cns (Decl tn)))). apply vt_tpos; auto. apply nth_error_mid. }
  set (fresh := type_label (Decl tn) (lc + 1)%N) in *.
  (* the closure's code *)
  destruct (create_layout pc (x_load_immediate t1 0 ++ x_load_label tmpv fresh ++ c3) fresh tn cls c5 lc3 lc') as (a & LAD & CLO); auto.
  { rewrite <- !app_assoc. exact CA. }
  { rewrite <- !app_assoc. exact LA. }
  { apply ends_nz_app, ends_nz_app. eapply cs_ends_nz; eauto. }
  (* the two instructions sequences *)
  pose proof (rel_frame R) as F.
  destruct (xtpos_ok _ _ _ T1') as (L1 & N1 & _ & NF1 & _). destruct (xtpos_ok _ _ _ T2) as (L2 & N2 & _ & NF2 & _).
  destruct (x86_load_immediate_ok im s sp t1 0 F L1 N1) as (s1 & E1 & V1 & P1).
  destruct P1 as (PR1 & _ & _ & F1).
  destruct (load_label_ok s1 sp tmpv fresh a F1 L2 N2 LAD) as (s2 & E2 & V2 & P2).
  destruct P2 as (PR2 & _ & _ & F2).
  assert (NE12 : t1 <> tmpv).
  { intros E; subst. destruct (tpos_inj x86_backend x86_backend_ok _ _ _ _ _ T1' T2) as [X _]. discriminate. }
  exists (x_load_immediate t1 0 ++ x_load_label tmpv fresh), c3, lc3, (([LAB fresh] ++ table_or_nil cls fresh) ++ c5), s2.
  split; [rewrite <- !app_assoc; reflexivity|]. split; [exact NX|].
  split; [rewrite exec_straight_app, E1; exact E2|].
  assert (KEEP : forall l, loc_ok l -> l <> XR TEMP -> l <> t1 -> l <> tmpv -> lget s2 sp l = lget s sp l).
  { intros l Ll Nl A1 A2. rewrite PR2 by auto. apply PR1; auto. }
  split.
  - pose proof (rel_length R) as LEN. destruct R as [F0 Al Ro Fr Ids ND0 Vals]. split; auto.
    + destruct Fr as (f & Fr). exists f. rewrite <- Fr. apply (KEEP (XR FREE)); [cbn; discriminate|discriminate|congruence|congruence].
    + unfold env_ids, ids in *. rewrite !map_app, Ids. reflexivity.
    + intros i x w Hn. destruct (Nat.lt_ge_cases i (List.length e)) as [L|L].
      * rewrite nth_error_app1 in Hn by exact L. destruct (Vals i x w Hn) as (b & Hb & V).
        exists b. split; [rewrite nth_error_app1 by lia; exact Hb|].
        eapply vrep_keep; [|exact V]. intros n t0 _ T0.
        destruct (xtpos_ok _ _ _ T0) as (A & B & _). apply KEEP; auto.
        -- intros E; subst t0. destruct (tpos_inj x86_backend x86_backend_ok _ _ _ _ _ T0 T1') as [_ E]. lia.
        -- intros E; subst t0. destruct (tpos_inj x86_backend x86_backend_ok _ _ _ _ _ T0 T2) as [_ E]. lia.
      * rewrite nth_error_app2 in Hn by exact L. destruct (i - List.length e)%nat as [|k] eqn:K; cbn in Hn; [|destruct k; discriminate].
        inversion Hn; subst. exists (mkb x Cns (Decl tn)). split.
        -- rewrite nth_error_app2 by lia. replace (i - List.length c)%nat with O by lia. reflexivity.
        -- replace i with (List.length c) by lia.
           apply (vrep_clo clo_ok s2 sp (List.length c) (mkb x Cns (Decl tn)) tn cls a t1 tmpv); auto.
           rewrite PR2; auto.
  - assert (LC : local_code (x_load_immediate t1 0 ++ x_load_label tmpv fresh) = true).
    { rewrite local_code_app, local_load_immediate, local_load_label by (apply loc_ok_lok; assumption). reflexivity. }
    eapply exec_straight_local; [exact LC|exact F|]. rewrite exec_straight_app, E1. exact E2.
Qed.


Lemma rel_prefix c0 b e0 ev s sp : rel (c0 ++ [b]) (e0 ++ [ev]) s sp -> rel c0 e0 s sp.
Proof.
  intros R. pose proof (rel_length R) as LEN. rewrite !app_length in LEN. cbn [List.length] in LEN.
  destruct R as [F Al Ro Fr Ids ND Vals]. split; auto.
  - unfold env_ids, ids in *. rewrite !map_app in Ids. cbn [map] in Ids. apply app_inj_tail in Ids. tauto.
  - unfold ids in *. rewrite map_app in ND. eapply NoDup_app_head; eauto.
  - intros i x v Hi. assert (Li : (i < List.length e0)%nat) by (apply nth_error_Some; congruence).
    destruct (Vals i x v) as (b' & Hb' & V); [rewrite nth_error_app1 by exact Li; exact Hi|].
    exists b'. split; [|exact V]. rewrite nth_error_app1 in Hb' by lia. exact Hb'.
Qed.

Theorem sim_invoke c e s sp v tag t args code lc lc' pc e0 x tn cls ce cl e1 :
  rel c e s sp ->
  AxSem.split_last 1 e = Some (e0, [(x, VClo tn cls ce)]) -> N.eqb (idn x) (idn v) = true ->
  find_clause cls tag = Some cl -> bind (vars (cl_ctx cl)) (map snd e0) = Some e1 ->
  lin_check (sigs_of p) c (Invoke v tag t args) = true ->
  xcs (ptypes p) (Invoke v tag t args) c lc = Ok (code, lc') -> code_at im pc code ->
  exists pcb lcb cb lcb' s',
    exec_to im pc s pcb s' /\
    xcs (ptypes p) (cl_body cl) (cl_ctx cl) lcb = Ok (cb, lcb') /\ code_at im pcb cb /\ labels_at_nh im pcb cb /\
    lin_check (sigs_of p) (cl_ctx cl) (cl_body cl) = true /\ stmt_cf (cl_body cl) = true /\ ctx_cf (cl_ctx cl) = true /\
    rel (cl_ctx cl) (e1 ++ ce) s' sp /\ frame_eq s s' sp.
Proof.
  intros R SL IDX FC BD LC CS CA.
  apply split_last1_inv in SL. subst e.
  pose proof (rel_length R) as LEN. rewrite app_length in LEN. cbn [List.length] in LEN.
  (* the typing side: the context ends with the closure variable *)
  cbn [lin_check] in LC. apply andb_true_iff in LC as [_ LC].
  destruct (split_lastn 1 c) as [[c0 [|b [|b' r]]]|] eqn:SLc; try discriminate.
  apply split_lastn_Some in SLc as [-> _].
  apply andb_true_iff in LC as [LC AO]. apply andb_true_iff in LC as [LC TY]. apply andb_true_iff in LC as [IDb CH].
  apply N.eqb_eq in IDb. apply ty_eqb_eq in TY. apply chi_eqb_eq in CH.
  assert (L0 : List.length e0 = List.length c0) by (rewrite app_length in LEN; cbn [List.length] in LEN; lia).
  (* the closure's representation *)
  destruct (rel_vals R (List.length e0) x (VClo tn cls ce)) as (b0 & Hb0 & V); [apply nth_error_mid|].
  rewrite L0, nth_error_mid in Hb0. inversion Hb0; subst b0. clear Hb0.
  inversion V as [|b1 tn1 cls1 a t1 t2 K1 K2 T1 T2 V1 V2 CLO]; subst. clear V.
  destruct CLO as (CO & AB & ENTRY).
  (* the temporary the generator jumps through *)
  destruct (cs_invoke _ _ _ _ _ _ _ _ _ CS) as (tmpv & d & TV & LT & _ & CODE).
  assert (TVeq : tmpv = t2).
  { rewrite <- IDb in TV. rewrite (vt_of_nth0 (c0 ++ [b]) (List.length c0) b (rel_nodup R) (nth_error_mid _ _ _)) in TV.
    rewrite L0 in T2. congruence. }
  subst tmpv.
  (* the declaration and the position of the clause *)
  rewrite K2 in *. unfold cls_ok, type_xtors in CO. cbn [sigs_of sg_types] in CO.
  unfold lookup_type in LT.
  destruct (find (fun d => ident_eqb (tname d) tn) (ptypes p)) as [d'|] eqn:FD; [|discriminate]. inversion LT; subst d'. clear LT.
  destruct (find_clause_pos cls (txtors d) tag cl 0%N CO FC) as (k & xk & Hk & Hxk & XP & FX & SMk).
  pose proof (cls_sig_length _ _ CO) as LCL.
  destruct (ENTRY k cl Hk) as (i & pcb & lcb & cb & lcb' & IX & ARR & CSb & CAb & LAb & LCb & CFb & CXb).
  (* the new environment *)
  pose proof (rel_frame R) as F.
  assert (T2' : xtpos Snd (List.length c0) = Ok t2) by (rewrite <- L0; exact T2).
  destruct (xtpos_ok _ _ _ T2') as (Lt2 & Nt2 & _ & NFt2 & _).
  assert (R1 : forall s', frame_ok s' sp -> rget s' FREE = rget s FREE ->
             (forall l, loc_ok l -> l <> XR TEMP -> l <> t2 -> lget s' sp l = lget s sp l) ->
             rel (cl_ctx cl) (e1 ++ []) s' sp).
  { intros s' F' FR' KEEP. rewrite app_nil_r.
    assert (R0 : rel c0 e0 s' sp).
    { apply (rel_keep clo_ok c0 e0 s s' sp (rel_prefix c0 b e0 _ s sp R) F' FR'). intros j bj n tj Hj AL Tj.
      destruct (xtpos_ok _ _ _ Tj) as (A & B & _). apply KEEP; auto.
      intros E; subst tj. assert (Lj : (j < List.length c0)%nat) by (apply nth_error_Some; congruence).
      destruct (tpos_inj x86_backend x86_backend_ok _ _ _ _ _ Tj T2') as [_ E]. lia. }
    apply (bind_rel clo_ok c0 e0 s' sp (cl_ctx cl) e1 R0); [exact (lin_nodup _ _ _ LCb)| |exact BD].
    unfold args_ok, lookup_xtor, type_xtors in AO. cbn [sigs_of sg_types] in AO. rewrite FD, FX in AO.
    eapply sig_match_join; eauto. }
  (* the jump *)
  assert (GO : forall rj s1 off, rget s1 rj = Some (a + off) ->
             off = (if Nat.leb (List.length cls) 1 then 0 else jump_length (N.of_nat k)) ->
             step im (JMP rj) s1 = Jump s1 i).
  { intros rj s1 off RG ->. cbn [step]. unfold need. rewrite RG. unfold goto_addr. now rewrite IX. }
  exists pcb, lcb, cb, lcb'.
  assert (FIN : forall s', exec_to im pc s pcb s' -> rel (cl_ctx cl) (e1 ++ []) s' sp -> frame_eq s s' sp ->
           exists s'0, exec_to im pc s pcb s'0 /\
             xcs (ptypes p) (cl_body cl) (cl_ctx cl) lcb = Ok (cb, lcb') /\ code_at im pcb cb /\ labels_at_nh im pcb cb /\
             lin_check (sigs_of p) (cl_ctx cl) (cl_body cl) = true /\ stmt_cf (cl_body cl) = true /\ ctx_cf (cl_ctx cl) = true /\
             rel (cl_ctx cl) (e1 ++ []) s'0 sp /\ frame_eq s s'0 sp).
  { intros s' X RR FE. exists s'. tauto. }
  rewrite <- LCL in CODE. destruct (Nat.leb (List.length cls) 1) eqn:LE.
  - (* one destructor: jump through the temporary *)
    subst code. destruct t2 as [r|q]; cbn [x_jump lget loc_ok] in *.
    + apply code_at_cons in CA as [CJ _]. apply (FIN s).
      * eapply exec_jump; [exact CJ|apply (GO r s 0); [rewrite Z.add_0_r; exact V2|reflexivity]|apply ARR].
      * apply R1; auto.
      * apply frame_eq_refl.
    + apply code_at_cons in CA as [C0 CA]. apply code_at_cons in CA as [CJ _].
      apply (FIN (rset s TEMP (Some a))).
      * eapply exec_next; [exact C0|rewrite (step_MOVL_slot im s sp F) by exact Lt2; rewrite V2; reflexivity|].
        eapply exec_jump; [exact CJ|apply (GO TEMP _ 0); [rewrite Z.add_0_r; apply rget_rset_same|reflexivity]|apply ARR].
      * apply R1; [apply frame_ok_rset; [discriminate|exact F]|apply rget_rset_other; discriminate|].
        intros l Ll Nl _. apply (lget_lset_other s sp (XR TEMP) l); [apply F|cbn; discriminate|exact Ll|congruence].
      * apply frame_eq_rset.
  - (* several destructors: add the table offset, then jump *)
    destruct CODE as (k' & XP' & ->). assert (k' = N.of_nat k) by (rewrite XP in XP'; inversion XP'; lia). subst k'.
    set (off := jump_length (N.of_nat k)) in *.
    assert (OFF : 0 <= off) by (unfold off, jump_length; lia).
    destruct t2 as [r|q]; cbn [x_add_and_jump lget loc_ok] in *.
    + apply code_at_cons in CA as [C0 CA]. apply code_at_cons in CA as [CJ _].
      pose proof (ENC _ _ C0) as W. cbn [instr_wf] in W. apply andb_true_iff in W as [_ FI].
      assert (FI' : off < 2147483648) by (unfold fits32 in FI; lia).
      set (s1 := set_flags (rset s r (Some (a + off))) None).
      assert (ST : step im (ADDI r off) s = Next s1).
      { cbn [step]. rewrite FI. unfold need. rewrite V2. rewrite wrap_small_range by lia. reflexivity. }
      apply (FIN s1).
      * eapply exec_next; [exact C0|exact ST|].
        eapply exec_jump; [exact CJ|apply (GO r s1 off); [unfold s1; rewrite rget_set_flags; apply rget_rset_same|reflexivity]|apply ARR].
      * apply R1; [unfold s1; apply frame_ok_set_flags, frame_ok_rset; auto|unfold s1; rewrite rget_set_flags; apply rget_rset_other; congruence|].
        intros l Ll Nl N2. unfold s1. rewrite lget_set_flags. apply (lget_lset_other s sp (XR r) l); [apply F|exact Lt2|exact Ll|congruence].
      * unfold s1. eapply frame_eq_trans; [apply frame_eq_rset|apply frame_eq_set_flags].
    + apply code_at_cons in CA as [C0 CA]. apply code_at_cons in CA as [C1 CA]. apply code_at_cons in CA as [CJ _].
      pose proof (ENC _ _ C1) as W. cbn [instr_wf] in W. apply andb_true_iff in W as [_ FI].
      assert (FI' : off < 2147483648) by (unfold fits32 in FI; lia).
      set (s0 := rset s TEMP (Some a)). set (s1 := set_flags (rset s0 TEMP (Some (a + off))) None).
      assert (ST : step im (ADDI TEMP off) s0 = Next s1).
      { cbn [step]. rewrite FI. unfold need. unfold s0 at 1. rewrite rget_rset_same. rewrite wrap_small_range by lia. reflexivity. }
      apply (FIN s1).
      * eapply exec_next; [exact C0|rewrite (step_MOVL_slot im s sp F) by exact Lt2; rewrite V2; reflexivity|].
        eapply exec_next; [exact C1|exact ST|].
        eapply exec_jump; [exact CJ|apply (GO TEMP s1 off); [unfold s1; rewrite rget_set_flags; apply rget_rset_same|reflexivity]|apply ARR].
      * apply R1.
        -- unfold s1, s0. apply frame_ok_set_flags, frame_ok_rset; [discriminate|]. apply frame_ok_rset; [discriminate|exact F].
        -- unfold s1, s0. rewrite rget_set_flags. rewrite !rget_rset_other by discriminate. reflexivity.
        -- intros l Ll Nl _. unfold s1, s0. rewrite lget_set_flags.
           change (rset (rset s TEMP (Some a)) TEMP (Some (a + off))) with (lset (lset s sp (XR TEMP) (Some a)) sp (XR TEMP) (Some (a + off))).
           rewrite !lget_lset_other; [reflexivity|apply F|cbn; discriminate|exact Ll|congruence|apply F|cbn; discriminate|exact Ll|congruence].
      * unfold s1, s0. eapply frame_eq_trans; [apply frame_eq_rset|]. eapply frame_eq_trans; [apply frame_eq_rset|apply frame_eq_set_flags].
Qed.


(* progress at Invoke: under the relation a linearly well-typed invoke finds its closure, its clause and
   its arguments *)
Lemma invoke_progress c e s sp v tag t args :
  rel c e s sp -> lin_check (sigs_of p) c (Invoke v tag t args) = true ->
  exists e0 x tn cls cl e1,
    AxSem.split_last 1 e = Some (e0, [(x, VClo tn cls [])]) /\ N.eqb (idn x) (idn v) = true /\
    find_clause cls tag = Some cl /\ bind (vars (cl_ctx cl)) (map snd e0) = Some e1.
Proof.
  intros R LC. pose proof (rel_length R) as LEN.
  cbn [lin_check] in LC. apply andb_true_iff in LC as [_ LC].
  destruct (split_lastn 1 c) as [[c0 [|b [|b' r]]]|] eqn:SLc; try discriminate.
  apply split_lastn_Some in SLc as [-> _].
  apply andb_true_iff in LC as [LC AO]. apply andb_true_iff in LC as [LC TY]. apply andb_true_iff in LC as [IDb CH].
  apply N.eqb_eq in IDb. apply ty_eqb_eq in TY. apply chi_eqb_eq in CH.
  rewrite app_length in LEN. cbn [List.length] in LEN.
  (* the environment ends with the closure *)
  destruct (exists_last (l := e)) as (e0 & [x val] & ->); [intros ->; cbn in LEN; lia|].
  rewrite app_length in LEN. cbn [List.length] in LEN.
  assert (L0 : List.length e0 = List.length c0) by lia.
  destruct (rel_vals R (List.length e0) x val) as (b0 & Hb0 & V); [apply nth_error_mid|].
  rewrite L0, nth_error_mid in Hb0. inversion Hb0; subst b0. clear Hb0.
  inversion V as [? z ? K1 ?|b1 tn cls a t1 t2 K1 K2 T1 T2 V1 V2 CLO]; subst; [congruence|]. clear V.
  destruct CLO as (CO & _ & ENTRY).
  assert (IDX : idn x = idn v).
  { pose proof (rel_ids R) as Ids. unfold env_ids, ids in Ids. rewrite !map_app in Ids. cbn [map fst] in Ids.
    apply app_inj_tail in Ids as [_ E]. congruence. }
  rewrite K2 in *. unfold cls_ok, type_xtors in CO. cbn [sigs_of sg_types] in CO.
  unfold args_ok, lookup_xtor, type_xtors in AO. cbn [sigs_of sg_types] in AO.
  destruct (find (fun d => ident_eqb (tname d) tn) (ptypes p)) as [d|] eqn:FD; [|discriminate].
  destruct (find (fun x => ident_eqb (xname x) tag) (txtors d)) as [xk|] eqn:FX; [|discriminate].
  destruct (find_clause_total cls (txtors d) tag xk CO FX) as (cl & FC).
  destruct (find_clause_pos cls (txtors d) tag cl 0%N CO FC) as (k & xk' & Hk & Hxk & XP & FX' & SMk).
  assert (xk' = xk) by congruence. subst xk'.
  destruct (bind_total (vars (cl_ctx cl)) (map snd e0)) as (e1 & BD).
  { apply sig_match_iff, same_kt_length in AO. apply sig_match_iff, same_kt_length in SMk. unfold vars. rewrite !map_length. lia. }
  exists e0, x, tn, cls, cl, e1. split; [apply split_last1_app|]. split; [apply N.eqb_eq; exact IDX|]. auto.
Qed.

End Clo.
