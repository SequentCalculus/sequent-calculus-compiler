(* C03, uniquify preserves behaviour: [uq_aeq_all] - what the model of `uniquify` returns for a
   term that went through the pending substitution (P, C) is alpha-equivalent, under the binder
   correspondence G, to the ORIGINAL term.
   In the statements [UQt], [UQa], [UQc], [UQs] (one per syntactic class, at fuel f): t is the original
   term; t1 is t after the pending substitution (P for variables, C for covariables; invariant [J],
   Proof/UqProof.v); t' is what the model returns for t1 from the counter m.  G pairs every binder in
   whose scope t stands with the binder it became; [GOK T m G] says that such a binder is unchanged with an
   id <= T or fresh with an id in (T, m].  T bounds every id of the input (hypothesis ids_le_term etc.),
   so no name with an id above T occurs in it; the scoping check cs_* is made against the source side
   [gsrc G].
   The names UQt, UQa, UQc, UQs, UQt_UQa are also those of the binder specification in
   Proof/UniquifyProof.v, which this file imports; from here on they mean the statements below. *)
From Coq Require Import List ZArith NArith String Bool Lia.
From SCC Require Import Base.Sexp Lang.CoreSyn Model.Backend Model.Uniquify Model.FocusCheck Proof.CoreInd
     Proof.SubstProof Proof.UniquifyProof Proof.FocusKont Proof.UqSubst Proof.UqAeq Proof.UqProof.
From SCC Require Import Model.FocusGuard.
Import ListNotations.
Open Scope list_scope.
Open Scope N_scope.

(* t is a piece of the ORIGINAL program and (P, C) the substitution (variables, covariables) that the binders above
   it have accumulated; the model runs on t1 = t[P, C] with counter m and returns t'.  G pairs every binder in scope
   with its name in the output (J: looking a name up in (P, C) gives its partner in G; GOK: the partners are the
   binders themselves or names with ids in (T, m]).  T bounds every identifier of the original program: the fresh
   names, all above T, can clash with none of them. *)
Definition UQt (f : nat) : Prop := forall c t P C t1 m t' m' G T,
  subst_term c t P C = Ok t1 -> uq_term f t1 m = Ok (t', m') ->
  J G P C -> GOK T m G -> T <= m -> ids_le_term T t = true -> cs_term (gsrc G) c t = true ->
  aeq_t G t t' /\ m <= m'.
Definition UQa (f : nat) : Prop := forall a P C a1 m a' m' G T,
  subst_arg a P C = Ok a1 -> uq_arg_with (uq_term f) a1 m = Ok (a', m') ->
  J G P C -> GOK T m G -> T <= m -> ids_le_arg T a = true -> cs_arg (gsrc G) a = true ->
  aeq_a G a a' /\ m <= m'.
Definition UQc (f : nat) : Prop := forall cl P C cl1 m cl' m' G T,
  subst_clause cl P C = Ok cl1 -> uq_clause f cl1 m = Ok (cl', m') ->
  J G P C -> GOK T m G -> T <= m -> ids_le_clause T cl = true -> cs_clause (gsrc G) cl = true ->
  aeq_c G cl cl' /\ m <= m'.
Definition UQs (f : nat) : Prop := forall s P C s1 m s' m' G T,
  subst_stmt s P C = Ok s1 -> uq_stmt f s1 m = Ok (s', m') ->
  J G P C -> GOK T m G -> T <= m -> ids_le_stmt T s = true -> cs_stmt (gsrc G) s = true ->
  aeq_s G s s' /\ m <= m'.

Lemma UQt_UQa : forall f, UQt f -> UQa f.
Proof.
  intros f H a P C a1 m a' m' G T S U HJ K L I SC. destruct a as [p|p]; simpl in S.
  - rb S p1 E. okinv S. simpl in U. rb2 U p' m1 E2. okinv U.
    destruct (H _ _ _ _ _ _ _ _ _ _ E E2 HJ K L I SC). split; [constructor|]; auto.
  - rb S p1 E. okinv S. simpl in U. rb2 U p' m1 E2. okinv U.
    destruct (H _ _ _ _ _ _ _ _ _ _ E E2 HJ K L I SC). split; [constructor|]; auto.
Qed.

Lemma uq_args_aeq : forall f, UQa f -> forall args P C args1 m args' m' G T,
  mapr (fun a => subst_arg a P C) args = Ok args1 -> maprs (uq_arg_with (uq_term f)) args1 m = Ok (args', m') ->
  J G P C -> GOK T m G -> T <= m -> forallb (ids_le_arg T) args = true -> forallb (cs_arg (gsrc G)) args = true ->
  aeq_as G args args' /\ m <= m'.
Proof.
  intros f H. induction args as [|a r IH]; intros P C args1 m args' m' G T S U HJ K L I SC; simpl in S.
  - okinv S. simpl in U. okinv U. split; [constructor | lia].
  - rb S a1 E1. rb S r1 E2. okinv S. simpl in U. rb2 U a' m1 E3. rb2 U r' m2 E4. okinv U.
    simpl in I, SC. apply andb_true_iff in I. destruct I as [I1 I2]. apply andb_true_iff in SC. destruct SC as [S1 S2].
    destruct (H _ _ _ _ _ _ _ _ _ E1 E3 HJ K L I1 S1) as [A1 L1].
    destruct (IH _ _ _ _ _ _ _ _ E2 E4 HJ (GOK_mono _ _ _ _ K L1) ltac:(lia) I2 S2) as [A2 L2].
    split; [constructor; auto | lia].
Qed.
Lemma uq_clauses_aeq : forall f, UQc f -> forall cls P C cls1 m cls' m' G T,
  mapr (fun a => subst_clause a P C) cls = Ok cls1 -> maprs (uq_clause f) cls1 m = Ok (cls', m') ->
  J G P C -> GOK T m G -> T <= m -> forallb (ids_le_clause T) cls = true -> forallb (cs_clause (gsrc G)) cls = true ->
  aeq_cs G cls cls' /\ m <= m'.
Proof.
  intros f H. induction cls as [|a r IH]; intros P C cls1 m cls' m' G T S U HJ K L I SC; simpl in S.
  - okinv S. simpl in U. okinv U. split; [constructor | lia].
  - rb S a1 E1. rb S r1 E2. okinv S. simpl in U. rb2 U a' m1 E3. rb2 U r' m2 E4. okinv U.
    simpl in I, SC. apply andb_true_iff in I. destruct I as [I1 I2]. apply andb_true_iff in SC. destruct SC as [S1 S2].
    destruct (H _ _ _ _ _ _ _ _ _ E1 E3 HJ K L I1 S1) as [A1 L1].
    destruct (IH _ _ _ _ _ _ _ _ E2 E4 HJ (GOK_mono _ _ _ _ K L1) ltac:(lia) I2 S2) as [A2 L2].
    split; [constructor; auto | lia].
Qed.

Lemma scoped_of_cs : forall G c x, match sfind (gsrc G) x with Some ch => cchi_eqb ch c | None => true end = true ->
  scoped_at G c x.
Proof.
  intros G c x H. unfold scoped_at. rewrite sfind_gsrc in H. destruct (gfind G x) as [[ch x']|]; simpl in H; [|exact I].
  destruct ch, c; simpl in H; try discriminate; reflexivity.
Qed.

Lemma in_remove_key : forall v k P, In k (keys (subst_remove v P)) -> k <> v.
Proof.
  intros v k P H E. subst k. unfold keys, subst_remove in H. apply in_map_iff in H. destruct H as ([k t] & EQ & H).
  simpl in EQ. subst k. apply filter_In in H. simpl in H. destruct H as [_ H]. rewrite cident_eqb_refl in H. discriminate.
Qed.
Lemma in_remove_ctx_key : forall ctx k P, In k (keys (subst_remove_ctx ctx P)) -> ~ In k (cvars ctx).
Proof.
  intros ctx k P H E. unfold keys, subst_remove_ctx in H. apply in_map_iff in H. destruct H as ([k0 t] & EQ & H).
  simpl in EQ. subst k0. apply filter_In in H. simpl in H. destruct H as [_ H]. apply negb_true_iff in H.
  assert (X : existsb (cident_eqb k) (cvars ctx) = true) by (apply existsb_exists; exists k; split; auto; apply cident_eqb_refl).
  congruence.
Qed.

(* what survives a removal still renames to non-zero ids, hence to none of the keys (ids 0) about to be added *)
Lemma rvar0_filter : forall (f : cident * cterm -> bool) S ks,
  rvar0 S -> (forall k, In k ks -> cid_id k = 0) -> rvar (filter f S) ks.
Proof.
  intros f S ks RS Z k t I. apply filter_In in I. destruct (RS k t (proj1 I)) as (ch & n & ty & E & NZ).
  exists ch, n, ty. split; [exact E|]. intros Q. apply Z in Q. congruence.
Qed.

(* the substitution for a renamed mu binder composes with the pending one *)
Lemma compose_mu : forall s P C v s1 s2 P2 C2,
  rvar0 P -> rvar0 C -> cid_id v = 0 ->
  (forall k, In k (keys P2 ++ keys C2) -> k = v) ->
  subst_stmt s (subst_remove v P) (subst_remove v C) = Ok s1 -> subst_stmt s1 P2 C2 = Ok s2 ->
  subst_stmt s (P2 ++ subst_remove v P) (C2 ++ subst_remove v C) = Ok s2.
Proof.
  intros s P C v s1 s2 P2 C2 RP RC Z KV S1 S2. eapply subst_compose; eauto.
  assert (KZ : forall k, In k (keys P2 ++ keys C2) -> cid_id k = 0) by (intros k Q; apply KV in Q; subst k; exact Z).
  split; [exact (rvar0_filter _ P _ RP KZ)|]. split; [exact (rvar0_filter _ C _ RC KZ)|].
  intros k Hk F. apply KV in Hk. subst k. apply in_app_or in F. destruct F as [F|F]; apply in_remove_key in F; congruence.
Qed.

Lemma compose_ctx : forall s P C ctx m ctx' vs cs m1 s1 s2,
  rvar0 P -> rvar0 C -> uqc ctx m = (ctx', vs, cs, m1) ->
  subst_stmt s (subst_remove_ctx ctx P) (subst_remove_ctx ctx C) = Ok s1 ->
  (if is_nil vs && is_nil cs then Ok s1 else subst_stmt s1 vs cs) = Ok s2 ->
  subst_stmt s (vs ++ subst_remove_ctx ctx P) (cs ++ subst_remove_ctx ctx C) = Ok s2.
Proof.
  intros s P C ctx m ctx' vs cs m1 s1 s2 RP RC U S1 S2.
  destruct (is_nil vs && is_nil cs) eqn:NIL.
  - apply andb_true_iff in NIL. destruct NIL as [N1 N2]. destruct vs; [|discriminate]. destruct cs; [|discriminate].
    okinv S2. exact S1.
  - destruct (uqc_spec _ _ _ _ _ _ U) as (L & CL & FV & FC & _).
    assert (KEY : forall k, In k (keys vs ++ keys cs) -> In k (cvars ctx) /\ cid_id k = 0).
    { intros k Hk. apply in_app_or in Hk. destruct Hk as [Hk|Hk]; unfold keys in Hk; apply in_map_iff in Hk;
        destruct Hk as ([k0 t] & EQ & Hk); simpl in EQ; subst k0;
        [destruct (FV _ _ Hk) as (? & ? & ? & _ & _ & A & B) | destruct (FC _ _ Hk) as (? & ? & ? & _ & _ & A & B)]; auto. }
    eapply subst_compose; eauto.
    assert (KZ : forall k, In k (keys vs ++ keys cs) -> cid_id k = 0) by (intros k Q; exact (proj2 (KEY k Q))).
    split; [exact (rvar0_filter _ P _ RP KZ)|]. split; [exact (rvar0_filter _ C _ RC KZ)|].
    intros k Hk F. apply KEY in Hk. destruct Hk as [Hk _]. apply in_app_or in F.
    destruct F as [F|F]; apply in_remove_ctx_key in F; contradiction.
Qed.

Theorem uq_aeq_all : forall f, UQt f /\ UQc f /\ UQs f.
Proof.
  induction f as [|f (Ht & Hc & Hs)].
  - split; [|split].
    + intros c t P C t1 m t' m' G T S U. simpl in U. discriminate.
    + intros cl P C cl1 m cl' m' G T S U. simpl in U. discriminate.
    + intros s P C s1 m s' m' G T S U. simpl in U. discriminate.
  - pose proof (UQt_UQa f Ht) as Ha.
    split; [|split].
    + (* terms *)
      intros c t P C t1 m t' m' G T S U HJ K L I SC.
      destruct t as [c0 x ty|n|a o b|c0 v s ty|c0 tag args ty|c0 cls ty].
      * (* variable *)
        simpl in S, I, SC. apply N.leb_le in I.
        pose proof (scoped_of_cs _ _ _ SC) as SA.
        destruct HJ as (RP & RC & HJ). specialize (HJ x c SA).
        change (match c with CPrd => P | CCns => C end) with (sel c P C) in S.
        destruct (subst_find x (sel c P C)) as [p|] eqn:F.
        -- okinv S. destruct (subst_find_key _ _ _ F) as [_ IN].
           assert (RV : exists ch n ty0, t1 = CXVar ch n ty0).
           { destruct c; simpl in IN; [destruct (RP _ _ IN) as (ch & n & ty0 & E & _) | destruct (RC _ _ IN) as (ch & n & ty0 & E & _)]; eauto. }
           destruct RV as (ch & n & ty0 & ->). simpl in U. okinv U. simpl in HJ. subst n.
           split; [|lia]. constructor. eapply vmatch_img; eauto.
        -- okinv S. simpl in U. okinv U. simpl in HJ. split; [|lia]. constructor. pose proof (vmatch_img _ _ _ x K I) as VM. rewrite <- HJ in VM. exact VM.
      * (* literal *)
        destruct c; simpl in S; [|discriminate]. okinv S. simpl in U. okinv U. split; [constructor | lia].
      * (* operator *)
        destruct c; simpl in S; [|discriminate]. rb S a1 E1. rb S b1 E2. okinv S.
        simpl in U. rb2 U a' m1 E3. rb2 U b' m2 E4. okinv U.
        simpl in I, SC. apply andb_true_iff in I. destruct I as [I1 I2]. apply andb_true_iff in SC. destruct SC as [S1 S2].
        destruct (Ht _ _ _ _ _ _ _ _ _ _ E1 E3 HJ K L I1 S1) as [A1 L1].
        destruct (Ht _ _ _ _ _ _ _ _ _ _ E2 E4 HJ (GOK_mono _ _ _ _ K L1) ltac:(lia) I2 S2) as [A2 L2].
        split; [constructor; auto | lia].
      * (* mu *)
        simpl in S. rb S s1 E1. okinv S. simpl in I, SC. apply andb_true_iff in I. destruct I as [I1 I2]. apply N.leb_le in I1.
        simpl in U. destruct (N.eqb (cid_id v) 0) eqn:Z.
        -- apply N.eqb_eq in Z. unfold fresh_identifier in U.
           rb U s2 E2. rb2 U s3 m2 E3. okinv U.
           destruct HJ as (RP & RC & HJ0). pose proof (conj RP (conj RC HJ0)) as HJ.
           set (nv := (cid_name v, m + 1)) in *.
           assert (CMP : subst_stmt s (match mu_binds c0 with CPrd => (v, CXVar CPrd nv ty) :: subst_remove v P | CCns => subst_remove v P end)
                                      (match mu_binds c0 with CPrd => subst_remove v C | CCns => (v, CXVar CCns nv ty) :: subst_remove v C end) = Ok s2).
           { destruct c0; simpl.
             - unfold subst_covar_stmt in E2.
               apply (compose_mu s P C v s1 s2 [] [(v, CXVar CCns nv ty)]); auto.
               intros k [Q|[]]. simpl in Q. auto.
             - unfold subst_var_stmt in E2.
               apply (compose_mu s P C v s1 s2 [(v, CXVar CPrd nv ty)] []); auto.
               intros k [Q|[]]. simpl in Q. auto. }
           assert (K' : GOK T (m + 1) ((v, mu_binds c0, nv) :: G)).
           { constructor; [eapply GOK_mono; eauto; lia|]. right. split; [unfold nv; simpl; lia|].
             intros z c1 z' IN Q. subst z'. destruct (GOK_in _ _ _ _ _ _ K IN) as [[Q1 Q2]|Q]; [subst z; unfold nv in Q2; simpl in Q2; lia | unfold nv in Q; simpl in Q; lia]. }
           destruct (Hs _ _ _ _ _ _ _ _ _ CMP E3 (J_rename G P C v nv ty (mu_binds c0) HJ ltac:(unfold nv; simpl; lia)) K' ltac:(lia) I2 SC) as [A1 L1].
           split; [constructor; exact A1 | lia].
        -- apply N.eqb_neq in Z. rb2 U s3 m2 E3. okinv U.
           assert (K' : GOK T m ((v, mu_binds c0, v) :: G)) by (constructor; auto).
           destruct (Hs _ _ _ _ _ _ _ _ _ E1 E3 (J_keep G P C v (mu_binds c0) HJ) K' L I2 SC) as [A1 L1].
           split; [constructor; exact A1 | lia].
      * (* xtor *)
        simpl in S. rb S l1 E1. okinv S. simpl in U. rb2 U l' m1 E2. okinv U. simpl in I, SC.
        destruct (uq_args_aeq f Ha _ _ _ _ _ _ _ _ _ E1 E2 HJ K L I SC) as [A1 L1]. split; [constructor; auto | lia].
      * (* xcase *)
        simpl in S. rb S l1 E1. okinv S. simpl in U. rb2 U l' m1 E2. okinv U. simpl in I, SC.
        destruct (uq_clauses_aeq f Hc _ _ _ _ _ _ _ _ _ E1 E2 HJ K L I SC) as [A1 L1]. split; [constructor; auto | lia].
    + (* clauses *)
      intros cl P C cl1 m cl' m' G T S U HJ K L I SC. destruct cl as [c0 x ctx body].
      simpl in S. rb S b1 E1. okinv S. simpl in U. rewrite uq_context_uqc in U.
      destruct (uqc ctx m) as [[[ctx' vs] cs] m1] eqn:UC.
      rb U b2 E2. rb2 U b3 m2 E3. okinv U.
      simpl in I, SC. apply andb_true_iff in I. destruct I as [I1 I2].
      destruct HJ as (RP & RC & HJ0). pose proof (conj RP (conj RC HJ0)) as HJ.
      pose proof (compose_ctx _ _ _ _ _ _ _ _ _ _ _ RP RC UC E1 E2) as CMP.
      destruct (uqc_spec _ _ _ _ _ _ UC) as (L1 & CL & _).
      assert (SC' : cs_stmt (gsrc (gzip ctx ctx' ++ G)) body = true).
      { rewrite gsrc_app, gsrc_gzip; [exact SC | apply ctx_like_length; exact CL]. }
      destruct (Hs _ _ _ _ _ _ _ _ _ CMP E3 (J_ctx _ _ _ _ _ _ _ _ _ HJ UC) (uqc_GOK _ _ _ _ _ _ _ _ UC K L I1) ltac:(lia) I2 SC') as [A1 L2].
      split; [constructor; auto | lia].
    + (* statements *)
      intros s P C s1 m s' m' G T S U HJ K L I SC.
      destruct s as [p ty k|so a b t e|nl a next|g args ty|a ty]; simpl in S, I, SC.
      * rb S p1 E1. rb S k1 E2. okinv S. simpl in U. rb2 U p' m1 E3. rb2 U k' m2 E4. okinv U.
        apply andb_true_iff in I. destruct I as [I1 I2]. apply andb_true_iff in SC. destruct SC as [S1 S2].
        destruct (Ht _ _ _ _ _ _ _ _ _ _ E1 E3 HJ K L I1 S1) as [A1 L1].
        destruct (Ht _ _ _ _ _ _ _ _ _ _ E2 E4 HJ (GOK_mono _ _ _ _ K L1) ltac:(lia) I2 S2) as [A2 L2].
        split; [constructor; auto | lia].
      * rb S a1 E1. rb S b1 E2. rb S t1 E3. rb S e1 E4. okinv S.
        simpl in U. rb2 U a' m1 F1. rb2 U b' m2 F2. rb2 U t' m3 F3. rb2 U e' m4 F4. okinv U.
        apply andb_true_iff in I. destruct I as [I Ie]. apply andb_true_iff in I. destruct I as [I It].
        apply andb_true_iff in I. destruct I as [Ia Ib].
        apply andb_true_iff in SC. destruct SC as [SC Se]. apply andb_true_iff in SC. destruct SC as [SC St].
        apply andb_true_iff in SC. destruct SC as [Sa Sb].
        destruct (Ht _ _ _ _ _ _ _ _ _ _ E1 F1 HJ K L Ia Sa) as [A1 L1].
        assert (AB : aeq_o G b b' /\ m1 <= m2).
        { destruct b as [b0|].
          - rb E2 b01 E5. okinv E2. rb2 F2 b0' m5 F5. okinv F2.
            destruct (Ht _ _ _ _ _ _ _ _ _ _ E5 F5 HJ (GOK_mono _ _ _ _ K L1) ltac:(lia) Ib Sb) as [A2 L2].
            split; [constructor; auto | lia].
          - okinv E2. okinv F2. split; [constructor | lia]. }
        destruct AB as [A2 L2].
        assert (K3 : GOK T m2 G) by (eapply GOK_mono; [exact K | lia]).
        assert (LT3 : T <= m2) by lia.
        destruct (Hs _ _ _ _ _ _ _ _ _ E3 F3 HJ K3 LT3 It St) as [A3 L3].
        assert (K4 : GOK T m3 G) by (eapply GOK_mono; [exact K | lia]).
        assert (LT4 : T <= m3) by lia.
        destruct (Hs _ _ _ _ _ _ _ _ _ E4 F4 HJ K4 LT4 Ie Se) as [A4 L4].
        split; [constructor; auto | lia].
      * rb S a1 E1. rb S n1 E2. okinv S. simpl in U. rb2 U a' m1 E3. rb2 U n' m2 E4. okinv U.
        apply andb_true_iff in I. destruct I as [I1 I2]. apply andb_true_iff in SC. destruct SC as [S1 S2].
        destruct (Ht _ _ _ _ _ _ _ _ _ _ E1 E3 HJ K L I1 S1) as [A1 L1].
        destruct (Hs _ _ _ _ _ _ _ _ _ E2 E4 HJ (GOK_mono _ _ _ _ K L1) ltac:(lia) I2 S2) as [A2 L2].
        split; [constructor; auto | lia].
      * rb S l1 E1. okinv S. simpl in U. rb2 U l' m1 E2. okinv U.
        destruct (uq_args_aeq f Ha _ _ _ _ _ _ _ _ _ E1 E2 HJ K L I SC) as [A1 L1]. split; [constructor; auto | lia].
      * rb S a1 E1. okinv S. simpl in U. rb2 U a' m1 E2. okinv U.
        destruct (Ht _ _ _ _ _ _ _ _ _ _ E1 E2 HJ K L I SC) as [A1 L1]. split; [constructor; auto | lia].
Qed.
