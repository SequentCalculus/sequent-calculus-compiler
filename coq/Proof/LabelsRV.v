(* C14: the RISC-V back end obeys the label discipline of Proof/LabelGen.v ([rv_labels_ok]). *)
From Coq Require Import List ZArith NArith String Ascii Bool Lia Permutation.
From SCC Require Import Base.Sexp Lang.AxSyn Model.ParMoves Model.Backend Model.RV Sem.RVWf
  Proof.LabelStrings Proof.LabelGen.
Import ListNotations.
Local Open Scope string_scope.
Local Open Scope list_scope.

Notation rdefs := all_defs.
Notation rrefs := referenced.
Definition nolab (c : rcode) : bool :=
  match c with
  | LAB _ | JAL _ _ | LA _ _ | BEQ _ _ _ | BNE _ _ _ | BLT _ _ _ | BLE _ _ _ | BGT _ _ _ | BGE _ _ _ => false
  | _ => true
  end.
Notation defs := (defs rdefs).
Notation refs := (refs rrefs).
Notation plain := (plain rdefs rrefs).
Notation labs_ok := (labs_ok rdefs rrefs).

Lemma nolab_sound i : nolab i = true -> rdefs i = [] /\ rrefs i = [].
Proof. destruct i; try discriminate; split; reflexivity. Qed.
(* the lemmas of LabelGen.NoLab for this instruction set *)
Notation nolab_plain := (nolab_plain rdefs rrefs nolab nolab_sound).
Notation nolab_labs := (nolab_labs rdefs rrefs nolab nolab_sound).
Notation labs_pre := (labs_pre rdefs rrefs nolab nolab_sound).
Notation only_1 := (only_1 rdefs rrefs).

Definition okp (lc : N) (p : list rcode * N) : Prop := labs_ok lc (fst p) (snd p).
Definition okr (lc : N) (r : res (list rcode * N)) : Prop := forall c lc', r = Ok (c, lc') -> labs_ok lc c lc'.

Ltac dr := unfold LabelGen.defs, LabelGen.refs; rewrite ?flat_map_app; cbn [flat_map all_defs referenced app].

Lemma sk_ok a cond body lc : labs_ok a body lc -> okp a (skip_if_zero cond body lc).
Proof.
  intros H. unfold okp, skip_if_zero. cbn [fst snd].
  apply (labs_skip _ _ a lc body); [exact H| |].
  - rewrite !(defs_app rdefs). dr. rewrite ?app_nil_r. reflexivity.
  - rewrite !(refs_app rrefs). dr. rewrite ?app_nil_r. apply incl_refl.
Qed.
Lemma ite_ok a b c cond th el : labs_ok a th b -> labs_ok b el c -> okp a (if_zero_then_else cond th el c).
Proof.
  intros H1 H2. unfold okp, if_zero_then_else. cbn [fst snd].
  apply (labs_ite _ _ a b c th el); [exact H1|exact H2| |].
  - rewrite !(defs_app rdefs). dr; rewrite ?app_nil_r; reflexivity.
  - rewrite !(refs_app rrefs). dr; rewrite ?app_nil_r; cbn [app]; apply incl_refl.
Qed.

Lemma erase_ok t lc : okp lc (r_erase_block t lc).
Proof.
  unfold r_erase_block.
  match goal with |- context [if_zero_then_else TEMP ?th ?el lc] =>
    pose proof (ite_ok lc lc lc TEMP th el (nolab_labs lc th eq_refl) (nolab_labs lc el eq_refl)) as H;
    destruct (if_zero_then_else TEMP th el lc) as [c lc1] end.
  unfold okp in H. cbn [fst snd] in H. apply sk_ok. apply (labs_pre _ _ [_]); [reflexivity|exact H].
Qed.
Lemma share_ok t n lc : okp lc (r_share_block_n t n lc).
Proof. unfold r_share_block_n. apply sk_ok. apply nolab_labs. reflexivity. Qed.

Lemma erase_fields_ok r t2 a : forall l acc, okp a acc ->
  okp a (fold_left (fun (acc : list rcode * N) (offset : N) =>
               let '(c, lc) := acc in
               let '(c1, lc1) := r_erase_block t2 lc in
               (c ++ [LW t2 r (field_offset Fst offset)] ++ c1, lc1)) l acc).
Proof.
  induction l as [|o l IH]; intros [c lc] H; cbn [fold_left]; [exact H|]. apply IH.
  pose proof (erase_ok t2 lc) as H2. destruct (r_erase_block t2 lc) as [c1 lc1]. unfold okp in *. cbn [fst snd] in *.
  apply (labs_app _ _ a lc lc1); [exact H|]. apply (labs_pre lc lc1 [_]); [reflexivity|exact H2].
Qed.
Lemma acquire_ok t t2 lc : okp lc (acquire_block t t2 lc).
Proof.
  unfold acquire_block. pose proof (erase_fields_ok HEAP t2 lc (nseq 0 FIELDS_PER_BLOCK) ([], lc)) as H1.
  fold (erase_fields HEAP t2 lc) in H1. destruct (erase_fields HEAP t2 lc) as [ef lc1].
  assert (H1' : okp lc (ef, lc1)) by (apply H1; apply nolab_labs; reflexivity). clear H1. unfold okp in H1'. cbn [fst snd] in H1'.
  assert (L1 : (lc <= lc1)%N) by apply H1'.
  pose proof (ite_ok lc lc lc1 FREE [ADDI FREE HEAP (field_offset Fst FIELDS_PER_BLOCK)]
                ([SW ZERO HEAP NEXT_ELEMENT_OFFSET] ++ ef)) as H2.
  destruct (if_zero_then_else FREE _ _ lc1) as [inner lc2].
  assert (H2' : okp lc (inner, lc2)) by (apply H2; [apply nolab_labs; reflexivity|apply (labs_pre lc lc1 [_]); [reflexivity|exact H1']]).
  clear H2. unfold okp in H2'. cbn [fst snd] in H2'.
  match goal with |- context [if_zero_then_else HEAP ?th ?el lc2] =>
    pose proof (ite_ok lc lc2 lc2 HEAP th el) as H3; destruct (if_zero_then_else HEAP th el lc2) as [outer lc3] end.
  assert (H3' : okp lc (outer, lc3)).
  { apply H3; [apply (labs_pre lc lc2 [_; _]); [reflexivity|exact H2']|apply nolab_labs; reflexivity]. }
  unfold okp in *. cbn [fst snd] in *. apply (labs_pre _ _ [_; _]); [reflexivity|exact H3'].
Qed.

Lemma nl_store_field n c b o code : store_field n c b o = Ok code -> forallb nolab code = true.
Proof. unfold store_field. intros H. rinv H. inversion H; subst. reflexivity. Qed.
Lemma nl_load_field n c b o code : load_field n c b o = Ok code -> forallb nolab code = true.
Proof. unfold load_field. intros H. rinv H. inversion H; subst. reflexivity. Qed.
Lemma nl_store_value b rem blk o code : store_value b rem blk o = Ok code -> forallb nolab code = true.
Proof.
  unfold store_value. intros H. rinv H. pose proof (nl_store_field _ _ _ _ _ E) as N1. destruct (bchi b).
  - rinv H. inversion H; subst. rewrite forallb_app, N1, (nl_store_field _ _ _ _ _ E0). reflexivity.
  - rinv H. inversion H; subst. rewrite forallb_app, N1, (nl_store_field _ _ _ _ _ E0). reflexivity.
  - inversion H; subst. rewrite forallb_app, N1. reflexivity.
Qed.
Lemma nl_store_zeros n b : forallb nolab (store_zeros n b) = true.
Proof. unfold store_zeros. induction (nseq 0 n); cbn; [reflexivity|exact IHl]. Qed.
Lemma nl_store_values rem blk : forall l ff code, store_values l rem blk ff = Ok code -> forallb nolab code = true.
Proof.
  induction l as [|b l IH]; intros ff code H; cbn [store_values] in H.
  - inversion H; subst. apply nl_store_zeros.
  - rinv H. inversion H; subst. rewrite forallb_app, (nl_store_value _ _ _ _ _ E), (IH _ _ E0). reflexivity.
Qed.

Lemma load_value_ok b ex blk o m lc : okr lc (load_value b ex blk o m lc).
Proof.
  unfold okr, load_value. intros c lc' H. rinv H. pose proof (nl_load_field _ _ _ _ _ E) as N1.
  destruct (bchi b).
  1,2: rinv H; pose proof (nl_load_field _ _ _ _ _ E0) as N2; destruct m.
  - inversion H; subst. apply nolab_labs. rewrite forallb_app, N1, N2. reflexivity.
  - rinv H. match type of H with context [r_share_block_n ?t ?n ?l] =>
      pose proof (share_ok t n l) as S; destruct (r_share_block_n t n l) as [c3 lc1] end.
    inversion H; subst. unfold okp in S. cbn [fst snd] in S. apply labs_pre; [exact N1|]. apply labs_pre; [exact N2|exact S].
  - inversion H; subst. apply nolab_labs. rewrite forallb_app, N1, N2. reflexivity.
  - rinv H. match type of H with context [r_share_block_n ?t ?n ?l] =>
      pose proof (share_ok t n l) as S; destruct (r_share_block_n t n l) as [c3 lc1] end.
    inversion H; subst. unfold okp in S. cbn [fst snd] in S. apply labs_pre; [exact N1|]. apply labs_pre; [exact N2|exact S].
  - inversion H; subst. apply nolab_labs. exact N1.
Qed.
Lemma load_values_ok ex blk m : forall l ff lc, okr lc (load_values l ex blk ff m lc).
Proof.
  induction l as [|b l IH]; intros ff lc c lc' H; cbn [load_values] in H.
  - inversion H; subst. apply nolab_labs. reflexivity.
  - rinv H. inversion H; subst. apply (labs_app _ _ lc n lc'); [apply (load_value_ok _ _ _ _ _ _ _ _ E)|apply (IH _ _ _ _ E0)].
Qed.

Lemma store_fields_ok : forall fuel to_store remaining bp lc, okr lc (store_fields fuel to_store remaining bp lc).
Proof.
  induction fuel as [|fuel IH]; intros to_store remaining bp lc c lc' H; cbn [store_fields] in H; [discriminate|].
  destruct to_store as [|b0 ts].
  - destruct bp; [rinv H|]; inversion H; subst; apply nolab_labs; reflexivity.
  - rinv H. pose proof (acquire_ok x1 x2 lc) as A. destruct (acquire_block x1 x2 lc) as [c2 lc2]. rinv H. inversion H; subst.
    unfold okp in A. cbn [fst snd] in A.
    assert (N0 : forallb nolab x = true) by (destruct bp; [inversion E; reflexivity|apply (nl_store_field _ _ _ _ _ E)]).
    apply labs_pre; [exact N0|]. apply labs_pre; [apply (nl_store_values _ _ _ _ _ E0)|].
    apply (labs_app _ _ lc lc2 lc'); [exact A|apply (IH _ _ _ _ _ _ E3)].
Qed.

Lemma load_fields_ok : forall fuel to_load existing bp m lc, okr lc (load_fields fuel to_load existing bp m lc).
Proof.
  induction fuel as [|fuel IH]; intros to_load existing bp m lc c lc' H; cbn [load_fields] in H; [discriminate|].
  destruct to_load as [|b0 tl].
  - inversion H; subst. apply nolab_labs. reflexivity.
  - rinv H. inversion H; subst. pose proof (IH _ _ _ _ _ _ _ E) as I0.
    assert (N2 : forallb nolab x0 = true) by (destruct bp; [inversion E1; reflexivity|apply (nl_load_field _ _ _ _ _ E1)]).
    apply (labs_app _ _ lc n lc'); [exact I0|]. apply labs_pre; [destruct m; reflexivity|]. apply labs_pre; [exact N2|].
    apply (load_values_ok _ _ _ _ _ _ _ _ E2).
Qed.

Lemma load_ok to_load existing lc : okr lc (r_load to_load existing lc).
Proof.
  unfold okr, r_load. intros c lc' H. destruct to_load as [|b0 tl].
  - inversion H; subst. apply nolab_labs. reflexivity.
  - rinv H. pose proof (load_fields_ok _ _ _ _ _ _ _ _ E0) as I1. pose proof (load_fields_ok _ _ _ _ _ _ _ _ E1) as I2.
    match type of H with context [if_zero_then_else TEMP ?th (?pre ++ ?eb) ?l] =>
      pose proof (ite_ok lc n n0 TEMP th (pre ++ eb) I1 (labs_pre _ _ pre _ eq_refl I2)) as K; destruct (if_zero_then_else TEMP th (pre ++ eb) l) as [cc ll] end.
    inversion H; subst. unfold okp in K. cbn [fst snd] in K. apply (labs_pre _ _ [_]); [reflexivity|exact K].
Qed.
Lemma store_ok to_store remaining lc : okr lc (r_store to_store remaining lc).
Proof. unfold r_store. apply store_fields_ok. Qed.

Theorem rv_labels_ok : labels_ok rv_backend rdefs rrefs.
Proof.
  constructor; cbn [rv_backend b_label b_mark b_jump b_jump_label b_jump_label_fixed b_jcc2 b_jcc1
    b_load_immediate b_load_label b_add_and_jump b_arith b_mov b_print b_erase b_share_n b_store b_load
    b_store_temporary b_restore_temporary].
  - intros l. split; reflexivity.
  - intros c. split; reflexivity.
  - intros t. split; reflexivity.
  - intros l. apply only_1; [reflexivity|apply incl_refl].
  - intros l. apply only_1; [reflexivity|apply incl_refl].
  - intros s a b l. apply only_1; destruct s; first [reflexivity|apply incl_refl].
  - intros s a l. apply only_1; destruct s; first [reflexivity|apply incl_refl].
  - intros t i. split; reflexivity.
  - intros t l. apply only_1; [reflexivity|apply incl_refl].
  - intros t i. unfold r_add_and_jump. destruct (addi_fits i); split; reflexivity.
  - intros o t a b. destruct o; split; reflexivity.
  - intros t s. split; reflexivity.
  - intros n t c. split; reflexivity.
  - intros t f. split; reflexivity.
  - intros t f. split; reflexivity.
  - intros t lc. apply erase_ok.
  - intros t n lc. apply share_ok.
  - intros a b lc c lc'. apply store_ok.
  - intros a b lc c lc'. apply load_ok.
Qed.
