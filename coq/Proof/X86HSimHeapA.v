(* C06, forward simulation for HEAP statements: what `code_statement` emits for Let and Switch,
   the clause code of Create as `gclauses`, appending a new object / closure variable to the relation, and
   `x_store` for any number of variables (none: the null pointer), alone and followed by the write of the
   new variable's second word. *)
From Coq Require Import List ZArith NArith String Bool Lia FMapPositive Permutation.
From SCC Require Import Proof.X86Mem Proof.X86MemFrame Proof.X86StackFrame.
From SCC Require Import Base.Sexp Lang.AxSyn Sem.AxSem Sem.AxHeap Model.ParMoves Model.Backend Model.X86 Sem.X86Sem Sem.X86Wf
     Model.Linearize Model.LinCheck Generated.Constants Proof.LinBasics Proof.X86State Proof.X86Sel Proof.X86Exec Proof.X86ParMoves
     Proof.SubstGraph Proof.X86Subst Proof.X86SimRel Proof.X86SimStmt Proof.X86SimAddr Proof.X86SimClo
     Proof.X86HeapDefs Proof.X86HeapCongr Proof.X86HBridge Proof.X86HFrame
     Proof.X86HSimRel Proof.X86HSimStmt Proof.X86HConv Proof.X86HSimStore Proof.X86HLayout.
From SCC Require Model.Heap Proof.HeapMore Proof.HeapTrace Proof.HeapRep.
Import ListNotations.
Open Scope Z_scope.
Open Scope list_scope.

Lemma cs_let types v t tag args next c lc code lc' :
  xcs types (Let v t tag args next) c lc = Ok (code, lc') ->
  exists d k rest arguments c1 lc1 tmpv c3,
    lookup_type types t = Ok d /\ xtor_position (txtors d) tag 0 = Ok k /\
    Backend.split_last (List.length args) c = Ok (rest, arguments) /\
    x_store arguments rest lc = Ok (c1, lc1) /\
    xvt (rest ++ [mkb v Prd t]) (idn v) = Ok tmpv /\
    xcs types next (rest ++ [mkb v Prd t]) lc1 = Ok (c3, lc') /\
    code = c1 ++ x_load_immediate tmpv (jump_length k) ++ c3.
Proof.
  intros H. cbn [code_statement] in H.
  destruct (lookup_type types t) as [d|] eqn:LT; cbn [rbind] in H; [|discriminate].
  destruct (xtor_position (txtors d) tag 0) as [k|] eqn:XP; cbn [rbind] in H; [|discriminate].
  destruct (Backend.split_last (List.length args) c) as [[rest arguments]|] eqn:SL; cbn [rbind] in H; [|discriminate].
  cbn [b_store x86_backend x86_backend_with] in H.
  destruct (x_store arguments rest lc) as [[c1 lc1]|] eqn:ST; cbn [rbind] in H; [|discriminate].
  destruct (xvt (rest ++ [mkb v Prd t]) (idn v)) as [tmpv|] eqn:TV; cbn [rbind] in H; [|discriminate].
  destruct (xcs types next (rest ++ [mkb v Prd t]) lc1) as [[c3 lc3]|] eqn:NX; cbn [rbind] in H; [|discriminate].
  cbn in H. inversion H; subst. exists d, k, rest, arguments, c1, lc1, tmpv, c3. repeat split; auto.
Qed.

Definition switch_head (cls : list clause) (fresh : string) (tmpv : xtemp) : list xcode :=
  if Nat.leb (List.length cls) 1 then []
  else x_load_label (XR TEMP) fresh ++ x_arith Sum (XR TEMP) (XR TEMP) tmpv ++ x_jump (XR TEMP).

Lemma cs_switch types v t cls c lc code lc' :
  xcs types (Switch v t cls) c lc = Ok (code, lc') ->
  exists c1 c3,
    (if Nat.leb (List.length cls) 1 then c1 = []
     else exists tmpv, xvt c (idn v) = Ok tmpv /\ c1 = switch_head cls (type_label t (lc + 1)%N) tmpv) /\
    gclauses types (fun cx lc0 => x_load cx (removelast c) lc0) (fun cx => removelast c ++ cx)
             (type_label t (lc + 1)%N) cls (lc + 1)%N = Ok (c3, lc') /\
    code = c1 ++ ([LAB (type_label t (lc + 1)%N)] ++ table_or_nil cls (type_label t (lc + 1)%N)) ++ c3.
Proof.
  intros H. cbn [code_statement] in H. set (fresh := type_label t (lc + 1)%N) in *.
  (* the clause loop inside `code_statement` is `gclauses` *)
  match type of H with context [rbind (?f cls (lc + 1)%N) _] =>
    change (f cls (lc + 1)%N) with (gclauses types (fun cx lc1 => x_load cx (removelast c) lc1) (fun cx => removelast c ++ cx) fresh cls (lc + 1)%N) in H
  end.
  destruct (Nat.leb (List.length cls) 1) eqn:LE.
  - cbn [rbind] in H.
    destruct (gclauses types _ _ fresh cls (lc + 1)%N) as [[c3 lc3]|] eqn:CC; cbn [rbind] in H; [|discriminate].
    cbn in H. assert (E : code = LAB fresh :: c3 /\ lc3 = lc') by (split; congruence). destruct E as [-> ->].
    exists [], c3. split; [reflexivity|]. split; [reflexivity|]. unfold table_or_nil. unfold clause in *. rewrite LE. reflexivity.
  - destruct (xvt c (idn v)) as [tmpv|] eqn:TV; cbn [rbind] in H; [|discriminate].
    destruct (gclauses types _ _ fresh cls (lc + 1)%N) as [[c3 lc3]|] eqn:CC; cbn [rbind] in H; [|discriminate].
    cbn [b_load_label b_arith b_jump b_temp b_label x86_backend x86_backend_with fst snd] in H. inversion H; subst.
    exists (switch_head cls fresh tmpv), c3. unfold switch_head, table_or_nil. unfold clause in *. rewrite LE.
    split; [exists tmpv; auto|]. split; [reflexivity|]. rewrite <- !app_assoc. reflexivity.
Qed.

Lemma clauses_code_gclauses types cenv fresh cls lc :
  clauses_code types cenv fresh cls lc = gclauses types (fun cx lc0 => x_load cenv cx lc0) (fun cx => cx ++ cenv) fresh cls lc.
Proof. reflexivity. Qed.

Lemma bsplit_last_app (c rest args : ctx) n : Backend.split_last n c = Ok (rest, args) -> c = rest ++ args /\ List.length args = n.
Proof.
  unfold Backend.split_last. destruct (Nat.leb n (List.length c)) eqn:E; [|discriminate]. apply Nat.leb_le in E.
  intros H. inversion H; subst. split; [symmetry; apply firstn_skipn|]. rewrite skipn_length. lia.
Qed.
Lemma asplit_last_app {X} (l l0 l1 : list X) n : AxSem.split_last n l = Some (l0, l1) -> l = l0 ++ l1 /\ List.length l1 = n.
Proof.
  unfold AxSem.split_last. destruct (Nat.leb n (List.length l)) eqn:E; [|discriminate]. apply Nat.leb_le in E.
  intros H. inversion H; subst. split; [symmetry; apply firstn_skipn|]. rewrite skipn_length. lia.
Qed.

Section A.
Variable im : image.
Variable types : list tydecl.
Variable CLO : Z -> ident -> list clause -> ctx -> Prop.
Local Notation hrel := (hrel types CLO).
Local Notation hvrep := (hvrep types CLO).
Local Notation xrep := (xrep types CLO).
Local Notation xflds := (xflds types CLO).

(* appending a variable that owns a pointer: its first temporary holds the pointer already, the second one has
   just been written *)
Lemma hrel_push_ptr c he hs s s' sp x b v q a t1 t2 :
  hrel c he hs s sp -> NoDup (ids (c ++ [b])) -> idn (bvar b) = idn x ->
  bchi b <> Ext -> chi_of v = bchi b -> ty_of v = bty b ->
  xtpos Fst (List.length c) = Ok t1 -> xtpos Snd (List.length c) = Ok t2 ->
  preserved s s' sp t2 -> lget s sp t1 = Some q -> lget s' sp t2 = Some a -> xrep (hword s) v q a ->
  hrel (c ++ [b]) (he ++ [(x, v, q)]) hs s' sp.
Proof.
  intros R ND EX NB K1 K2 T1 T2 (PR & HE & _ & F') L1 L2 X.
  pose proof (hrel_length R) as LEN. destruct R as [F0 Al Ro Hr Fr HQ Ids ND0 Vals].
  destruct (xtpos_ok _ _ _ T2) as (_ & _ & _ & NF & NH).
  assert (RH : rget s' HEAP = rget s HEAP) by (apply (PR (XR HEAP)); [cbn; discriminate|congruence|discriminate]).
  assert (RF : rget s' FREE = rget s FREE) by (apply (PR (XR FREE)); [cbn; discriminate|congruence|discriminate]).
  split; auto.
  - now rewrite RH.
  - now rewrite RF.
  - eapply heq_same_heap; eauto.
  - unfold env_ids, ids, erase_env in *. rewrite !map_app. f_equal; [exact Ids|]. cbn. now rewrite EX.
  - intros i y w p Hn. destruct (Nat.lt_ge_cases i (List.length he)) as [L|L].
    + rewrite nth_error_app1 in Hn by exact L. destruct (Vals i y w p Hn) as (b0 & Hb & V).
      exists b0. split; [rewrite nth_error_app1 by lia; exact Hb|].
      eapply hvrep_keep; [exact HE| |exact V]. intros n t0 _ T0.
      destruct (xtpos_ok _ _ _ T0) as (A & B & _). apply PR; auto.
      intros E; subst t0. destruct (SubstGraph.tpos_inj x86_backend x86_backend_ok _ _ _ _ _ T0 T2) as [_ E]. lia.
    + rewrite nth_error_app2 in Hn by exact L. destruct (i - List.length he)%nat as [|k] eqn:K; cbn in Hn; [|destruct k; discriminate].
      inversion Hn; subst. exists b. split.
      * rewrite nth_error_app2 by lia. replace (i - List.length c)%nat with O by lia. reflexivity.
      * replace i with (List.length c) by lia.
        destruct (xtpos_ok _ _ _ T1) as (A1 & B1 & _).
        apply (hv_ptr types CLO s' sp (List.length c) b w p a t1 t2); auto.
        -- rewrite PR; auto. intros E; subst. destruct (SubstGraph.tpos_inj x86_backend x86_backend_ok _ _ _ _ _ T1 T2) as [E _]. discriminate.
        -- apply (xrep_ext types CLO (hword s) (hword s')); [intros a0 _; apply hword_heap; exact HE|exact X].
Qed.

(* x_store of any number of variables (Let, Create) *)
Theorem hsim_store_any rest args he0 fsE hs s sp lc c1 lc1 pc hl fl cl :
  hrel (rest ++ args) (he0 ++ fsE) hs s sp ->
  List.length he0 = List.length rest ->
  InvA HEAP_BASE hs (roots (he0 ++ fsE)) hl fl cl -> P03 hs ->
  (forall en, In en fsE -> chi_of (h_val en) = Ext -> h_ptr en = 0) ->
  x_store args rest lc = Ok (c1, lc1) ->
  code_at im pc c1 -> labels_at_nh im pc c1 ->
  let res := Heap.alloc_object (map store_ptr fsE) hs in
  Heap.frontier (snd res) + 64 <= LIMIT -> Heap.heap (snd res) <> 0 -> Heap.free (snd res) <> 0 ->
  exists s', exec_to im pc s (padd pc (List.length c1)) s' /\ hframe_eq s s' sp /\
    hrel rest he0 (snd res) s' sp /\
    (exists t1, xtpos Fst (List.length rest) = Ok t1 /\ lget s' sp t1 = Some (fst res)) /\
    xflds (hword s') (map h_val fsE) (fst res).
Proof.
  intros R L0 IA K03 EX XS CA LA res HF HH0 HF0.
  destruct args as [|a0 ar].
  - (* nothing to store: the null pointer *)
    pose proof (hrel_length R) as LEN. rewrite !app_length in LEN. cbn [List.length] in LEN.
    assert (fsE = []) by (destruct fsE; [reflexivity|cbn in LEN; lia]). subst fsE.
    rewrite !app_nil_r in *. unfold res. cbn [map Heap.alloc_object fst snd].
    rewrite x_store_nil in XS. destruct (x_fresh Fst rest) as [t1|] eqn:T1; cbn [rbind] in XS; [|discriminate].
    inversion XS; subst c1 lc1. clear XS.
    assert (T1' : xtpos Fst (List.length rest) = Ok t1) by exact T1.
    destruct (xtpos_ok _ _ _ T1') as (L1 & N1 & _ & NF1 & NH1).
    destruct (x86_load_immediate_ok im s sp t1 0 (hr_frame R) L1 N1) as (s1 & E1 & V1 & P1).
    pose proof P1 as (PR1 & HE1 & _ & F1).
    pose proof (proj2 (exec_straight_local im _ s sp s1 (local_load_immediate _ _ (loc_ok_lok _ L1)) (hr_frame R) E1)) as FE.
    exists s1. split; [apply (exec_straight_exec_to im _ pc s s1 CA E1)|]. split; [apply frame_eq_hframe; exact FE|].
    split; [|split; [exists t1; auto|constructor]].
    apply (hrel_keep types CLO rest he0 hs s s1 sp R F1 HE1).
    + apply (PR1 (XR HEAP)); [cbn; discriminate|congruence|discriminate].
    + apply (PR1 (XR FREE)); [cbn; discriminate|congruence|discriminate].
    + intros i b n t Hi _ Ti. destruct (xtpos_ok _ _ _ Ti) as (A & B & _). apply PR1; auto.
      intros E; subst t. assert (Li : (i < List.length rest)%nat) by (apply nth_error_Some; congruence).
      destruct (SubstGraph.tpos_inj x86_backend x86_backend_ok _ _ _ _ _ Ti T1') as [_ E]. lia.
  - eapply (hsim_store im types CLO); eauto. discriminate.
Qed.
(* Let and Create: the fields are stored, then code `cw` writes the second word (tag, code address) of the new variable *)
Lemma hsim_store_push rest args he0 fsE hs s sp lc c1 lc1 pc hl fl cl x b v a tmpv cw :
  hrel (rest ++ args) (he0 ++ fsE) hs s sp ->
  List.length he0 = List.length rest ->
  InvA HEAP_BASE hs (roots (he0 ++ fsE)) hl fl cl -> P03 hs ->
  (forall en, In en fsE -> chi_of (h_val en) = Ext -> h_ptr en = 0) ->
  x_store args rest lc = Ok (c1, lc1) ->
  code_at im pc c1 -> labels_at_nh im pc c1 -> code_at im (padd pc (List.length c1)) cw ->
  let res := Heap.alloc_object (map store_ptr fsE) hs in
  Heap.frontier (snd res) + 64 <= LIMIT -> Heap.heap (snd res) <> 0 -> Heap.free (snd res) <> 0 ->
  NoDup (ids (rest ++ [b])) -> idn (bvar b) = idn x -> bchi b <> Ext -> chi_of v = bchi b -> ty_of v = bty b ->
  xtpos Snd (List.length rest) = Ok tmpv -> local_code cw = true ->
  (forall s1, frame_ok s1 sp -> exists s2, exec_straight im cw s1 = Some s2 /\ lget s2 sp tmpv = Some a /\ preserved s1 s2 sp tmpv) ->
  (forall w, xflds w (map h_val fsE) (fst res) -> xrep w v (fst res) a) ->
  exists s', exec_to im pc s (padd pc (List.length (c1 ++ cw))) s' /\
    hrel (rest ++ [b]) (he0 ++ [(x, v, fst res)]) (snd res) s' sp /\ hframe_eq s s' sp.
Proof.
  intros R L0 IA K03 EX XS CA1 LA1 CA2 res HF HH0 HF0 ND EB NB K1 K2 T2 LOC CW XR.
  destruct (hsim_store_any rest args he0 fsE hs s sp lc c1 lc1 pc hl fl cl R L0 IA K03 EX XS CA1 LA1 HF HH0 HF0)
    as (s1 & X1 & FE1 & R1 & (t1 & T1 & Lt1) & XF1).
  fold res in R1, Lt1, XF1.
  destruct (CW s1 (hr_frame R1)) as (s2 & E2 & V2 & P2).
  pose proof (proj2 (exec_straight_local im _ s1 sp s2 LOC (hr_frame R1) E2)) as FE2.
  exists s2. split; [|split].
  - rewrite app_length, padd_add. eapply exec_to_trans; [exact X1|]. apply (exec_straight_exec_to im _ _ s1 s2 CA2 E2).
  - exact (hrel_push_ptr rest he0 (snd res) s1 s2 sp x b v (fst res) a t1 tmpv R1 ND EB NB K1 K2 T1 T2 P2 Lt1 V2 (XR _ XF1)).
  - eapply hframe_eq_trans; [exact FE1|apply frame_eq_hframe; exact FE2].
Qed.
End A.
