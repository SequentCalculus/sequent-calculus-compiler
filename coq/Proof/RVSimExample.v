(* C08: concrete print-free programs on which every hypothesis of rv_codegen_simulates_int /
   rv_codegen_simulates_cf is evaluated and both sides of the conclusion are computed, and witnesses that
   the arity and the capacity hypotheses cannot be dropped. *)
From Coq Require Import List ZArith NArith String Bool Lia.
From SCC Require Import Base.Sexp Lang.AxSyn Sem.AxSem Model.Backend Model.RV Sem.RVSem Sem.RVWf
     Model.Linearize Model.LinCheck Model.Capacity Proof.RVSimAddr Proof.RVSimClo Proof.RVSimTop.
From SCC Require Proof.X86SimExample Proof.X86SimExampleC.
Import ListNotations.
Local Open Scope string_scope.
Local Open Scope Z_scope.

Module XE := SCC.Proof.X86SimExample.
Module XEC := SCC.Proof.X86SimExampleC.
Notation id_ := XE.id_.
Notation ib := XE.ib.
Notation cb := XEC.cb.

(* two definitions calling each other, all five operators (incl. a division by zero), both forms of the
   conditional with four of the six sorts, a three-way substitution with a duplicated source *)
Definition rex_main : def :=
  mkd (id_ "main" 0) [ib "x" 1]
    (Literal 10 (id_ "y" 2)
    (Op (id_ "x" 1) Sum (id_ "y" 2) (id_ "z" 3)
    (IfC Lt (id_ "x" 1) (Some (id_ "y" 2))
       (Substitute [(ib "a" 4, id_ "z" 3); (ib "b" 5, id_ "x" 1); (ib "c" 6, id_ "z" 3)] (Call (id_ "f" 0) []))
       (Literal 10 (id_ "k" 4)
       (Op (id_ "x" 1) Sub (id_ "k" 4) (id_ "m" 5)
       (Op (id_ "z" 3) Div (id_ "m" 5) (id_ "w" 6)
       (Op (id_ "w" 6) Rem (id_ "y" 2) (id_ "r" 7)
       (IfC Ge (id_ "r" 7) (Some (id_ "w" 6)) (Exit (id_ "r" 7)) (Exit (id_ "w" 6)))))))))).
Definition rex_f : def :=
  mkd (id_ "f" 0) [ib "a" 1; ib "b" 2; ib "c" 3]
    (Literal (-7) (id_ "d" 4)
    (Op (id_ "a" 1) Prod (id_ "d" 4) (id_ "e" 5)
    (IfC Eq (id_ "b" 2) None
       (Exit (id_ "e" 5))
       (IfC Gt (id_ "b" 2) None
          (Substitute [(ib "x" 1, id_ "b" 2)] (Call (id_ "main" 0) []))
          (Exit (id_ "c" 3)))))).
Definition rex_prog : prog := mkp [rex_main; rex_f] [] 10.
Definition rex_code : list rcode := match rv_compile rex_prog 0 with Ok (cs, _, _) => cs | Err _ => [] end.

Lemma rex_hypotheses :
  SimFrag.int_frag rex_prog = true /\ lin_check_prog rex_prog = true /\
  (exists n lc', rv_compile rex_prog 0 = Ok (rex_code, n, lc')) /\ asm_wf rex_code = None /\
  Nat.leb (main_arity rex_prog) 14 = true.
Proof.
  do 2 (split; [vm_compute; reflexivity|]). split; [eexists _, _; vm_compute; reflexivity|].
  split; vm_compute; reflexivity.
Qed.

(* x = 0: f(10, 0, 10) exits with -70; x = -4: f(6, -4, 6) takes the last branch; x = 12: the else branch
   divides 22 by 2; x = 10: division by zero; x = 3: main and f call each other for ever (fuel) *)
Lemma rex_runs :
  run_linear 50 rex_prog [0] = ([], OExit (-70)) /\ fst (run_rv 10 1000 rex_code [0]) = ([], OExit (-70)) /\
  run_linear 50 rex_prog [-4] = ([], OExit 6) /\ fst (run_rv 10 1000 rex_code [-4]) = ([], OExit 6) /\
  run_linear 50 rex_prog [12] = ([], OExit 11) /\ fst (run_rv 10 1000 rex_code [12]) = ([], OExit 11) /\
  run_linear 50 rex_prog [10] = ([], OUndef "div0") /\ fst (run_rv 10 1000 rex_code [10]) = ([], OUndef "div0").
Proof. do 7 (split; [vm_compute; reflexivity|]). vm_compute. reflexivity. Qed.

(* closures without captured variables: `main` creates the return continuation and a closure of a codata
   type with two destructors, calls the tail-recursive `f`, which finally invokes the continuation; for a
   negative argument the two-destructor closure is entered through its jump table *)
Definition rexc_main : def :=
  mkd (id_ "main" 0) [ib "x" 1]
    (Literal 0 (id_ "acc" 6)
    (Create (id_ "a" 7) (Decl (id_ "_Cont" 0)) (Some [])
       [(id_ "Ret" 0, [ib "r" 2], Exit (id_ "r" 2))]
    (Create (id_ "t" 8) (Decl (id_ "Two" 0)) (Some [])
       [(id_ "A" 0, [ib "p" 9], Exit (id_ "p" 9));
        (id_ "B" 0, [ib "q" 10; ib "r" 11], Op (id_ "q" 10) Prod (id_ "r" 11) (id_ "s" 12) (Exit (id_ "s" 12)))]
    (IfC Lt (id_ "x" 1) None
       (Literal 7 (id_ "k" 9)
       (Substitute [(ib "q" 10, id_ "x" 1); (ib "r" 11, id_ "k" 9); (cb "t" 8 "Two", id_ "t" 8)]
          (Invoke (id_ "t" 8) (id_ "B" 0) (Decl (id_ "Two" 0)) [])))
       (Substitute [(ib "x" 3, id_ "x" 1); (ib "acc" 4, id_ "acc" 6); (cb "a0" 5 "_Cont", id_ "a" 7); (cb "t0" 6 "Two", id_ "t" 8)]
          (Call (id_ "f" 0) [])))))).
Definition rexc_f : def :=
  mkd (id_ "f" 0) [ib "x" 3; ib "acc" 4; cb "a0" 5 "_Cont"; cb "t0" 6 "Two"]
    (IfC Eq (id_ "x" 3) None
       (Substitute [(ib "acc" 4, id_ "acc" 4); (cb "a0" 5 "_Cont", id_ "a0" 5)]
          (Invoke (id_ "a0" 5) (id_ "Ret" 0) (Decl (id_ "_Cont" 0)) []))
       (Literal 1 (id_ "one" 8)
       (Op (id_ "x" 3) Sub (id_ "one" 8) (id_ "x" 9)
       (Op (id_ "acc" 4) Sum (id_ "x" 3) (id_ "y" 10)
       (Substitute [(ib "x" 3, id_ "x" 9); (ib "acc" 4, id_ "y" 10); (cb "a0" 5 "_Cont", id_ "a0" 5); (cb "t0" 6 "Two", id_ "t0" 6)]
          (Call (id_ "f" 0) [])))))).
Definition rexc_prog : prog := mkp [rexc_main; rexc_f] [XEC.t_cont; XEC.t_two] 20.
Definition rexc_code : list rcode := match rv_compile rexc_prog 0 with Ok (cs, _, _) => cs | Err _ => [] end.

Lemma rexc_hypotheses :
  SimFrag.cf_frag rexc_prog = true /\ SimFrag.entry_int rexc_prog = true /\ lin_check_prog rexc_prog = true /\
  (exists n lc', rv_compile rexc_prog 0 = Ok (rexc_code, n, lc')) /\ asm_wf rexc_code = None /\ code_small rexc_code = true /\
  Nat.leb (main_arity rexc_prog) 14 = true.
Proof.
  do 3 (split; [vm_compute; reflexivity|]). split; [eexists _, _; vm_compute; reflexivity|].
  do 2 (split; [vm_compute; reflexivity|]). vm_compute. reflexivity.
Qed.

Lemma rexc_runs :
  run_linear 60 rexc_prog [4] = ([], OExit 10) /\ fst (run_rv 10 2000 rexc_code [4]) = ([], OExit 10) /\
  run_linear 60 rexc_prog [-3] = ([], OExit (-21)) /\ fst (run_rv 10 2000 rexc_code [-3]) = ([], OExit (-21)).
Proof. do 3 (split; [vm_compute; reflexivity|]). vm_compute. reflexivity. Qed.

(* the pre-linearization program of Proof/X86SimExampleC.v (the shape `shrink` produces for
     def f(x, acc) { if x == 0 { acc } else { f(x - 1, acc + x) } }   def main(x) { f(x, 0) }),
   linearized by the model, on the RISC-V back end *)
Definition rexc_named_code : list rcode :=
  match rv_compile (linearize XEC.exc_named) 0 with Ok (cs, _, _) => cs | Err _ => [] end.
Lemma rexc_named_hypotheses :
  prog_ok XEC.exc_named = true /\ SimFrag.cf_frag (linearize XEC.exc_named) = true /\ SimFrag.entry_int (linearize XEC.exc_named) = true /\
  lin_check_prog (linearize XEC.exc_named) = true /\
  (exists n lc', rv_compile (linearize XEC.exc_named) 0 = Ok (rexc_named_code, n, lc')) /\
  asm_wf rexc_named_code = None /\ code_small rexc_named_code = true /\
  Nat.leb (main_arity (linearize XEC.exc_named)) 14 = true /\
  run_named 100 XEC.exc_named [10] = ([], OExit 55) /\
  fst (run_rv 10 2000 rexc_named_code [10]) = ([], OExit 55).
Proof.
  do 4 (split; [vm_compute; reflexivity|]). split; [eexists _, _; vm_compute; reflexivity|].
  do 4 (split; [vm_compute; reflexivity|]). vm_compute. reflexivity.
Qed.

(* with more than fourteen arguments the entry convention of Sem/RVSem.v refuses to start, whatever the fuel *)
Lemma run_rv_many_args outer inner cs args :
  (14 < List.length args)%nat ->
  exists w, w <> "entry-args" /\ fst (run_rv outer inner cs args) = ([], OStuck w).
Proof.
  intros L. unfold run_rv. cbv zeta. destruct cs as [|[] r]; try (eexists; split; [|reflexivity]; discriminate).
  destruct (duplicate_labels _) as [|l0 ?]; [|eexists; split; [|reflexivity]; discriminate].
  destruct (find_label _ _); [|eexists; split; [|reflexivity]; discriminate].
  destruct (Nat.ltb_spec 14 (List.length args)); [|lia]. eexists; split; [|reflexivity]; discriminate.
Qed.

(* without the arity hypothesis the statement is false: rex_prog (one parameter) started with fifteen
   arguments: the linear machine refuses to start ("entry-args"), the entry convention of Sem/RVSem.v has
   no fifteenth argument register, whatever the fuel *)
Lemma rex_arity_needed :
  ~ (forall (p : prog) (lc : N) (cs : list rcode) (n : nat) (lc' : N) (args : list Z) (fuel : nat) (o : obs),
      SimFrag.int_frag p = true -> lin_check_prog p = true ->
      rv_compile p lc = Ok (cs, n, lc') -> asm_wf cs = None -> Nat.leb (main_arity p) 14 = true ->
      run_linear fuel p args = o -> snd o <> OOutOfFuel ->
      exists outer inner, fst (run_rv outer inner cs args) = o).
Proof.
  intros H. destruct rex_hypotheses as (A & B & (n & lc' & D) & E & F).
  destruct (H rex_prog 0%N rex_code n lc' (repeat 1 15) 5%nat _ A B D E F eq_refl) as (outer & inner & R).
  { vm_compute. discriminate. }
  destruct (run_rv_many_args outer inner rex_code (repeat 1 15)) as (w & NW & RW); [cbn; lia|].
  rewrite RW in R. vm_compute in R. congruence.
Qed.

(* without the capacity hypothesis as well: a definition with fifteen parameters that only passes them on
   compiles (no register beyond the fourteenth position is named), the linear machine runs it, the entry
   convention has no register for the fifteenth argument *)
Definition rex15 : prog :=
  mkp [mkd (id_ "main" 0) (map (fun k => ib "x" (N.of_nat k)) (seq 1 15)) (Exit (id_ "x" 1))] [] 20.
Definition rex15_code : list rcode := match rv_compile rex15 0 with Ok (cs, _, _) => cs | Err _ => [] end.
Lemma rex_capacity_needed :
  ~ (forall (p : prog) (lc : N) (cs : list rcode) (n : nat) (lc' : N) (args : list Z) (fuel : nat) (o : obs),
      SimFrag.int_frag p = true -> lin_check_prog p = true ->
      rv_compile p lc = Ok (cs, n, lc') -> asm_wf cs = None -> List.length args = n ->
      run_linear fuel p args = o -> snd o <> OOutOfFuel ->
      exists outer inner, fst (run_rv outer inner cs args) = o).
Proof.
  intros H.
  assert (A : SimFrag.int_frag rex15 = true) by (vm_compute; reflexivity).
  assert (B : lin_check_prog rex15 = true) by (vm_compute; reflexivity).
  assert (D : rv_compile rex15 0 = Ok (rex15_code, 15%nat, 0%N)) by (vm_compute; reflexivity).
  assert (E : asm_wf rex15_code = None) by (vm_compute; reflexivity).
  destruct (H rex15 0%N rex15_code 15%nat 0%N (repeat 1 15) 5%nat _ A B D E eq_refl eq_refl) as (outer & inner & R).
  { vm_compute. discriminate. }
  destruct (run_rv_many_args outer inner rex15_code (repeat 1 15)) as (w & NW & RW); [cbn; lia|].
  rewrite RW in R. vm_compute in R. discriminate R.
Qed.
