(* C06, heap statements: non-vacuity of x86_codegen_simulates.
   `fits_b`: the numeric hypothesis `heap_fits` decided by running the instrumented machine (the frontier of
   every configuration of a terminating run is checked); the example program of Proof/AxHeapExample.v (lists -
   let / switch -, a five-field record in two chained blocks, shared and dropped objects, a closure that
   captures an integer, calls between two definitions): all hypotheses evaluated, both machines computed. *)
From Coq Require Import List ZArith NArith String Bool Lia.
From SCC Require Import Base.Sexp Lang.AxSyn Sem.AxSem Sem.AxHeap Model.Backend Model.X86 Sem.X86Sem Sem.X86Wf
     Model.Linearize Model.LinCheck Proof.X86SimAddr Proof.X86SimProg Proof.X86SimProgC Proof.X86HeapDefs Proof.X86HAnn Proof.X86HSimProgA Proof.X86HSimTop
     Proof.AxHeapExample.
From SCC Require Model.Heap Proof.AxHeapTyping.
Import ListNotations.
Open Scope Z_scope.

Fixpoint fits_b (fuel : nat) (p : prog) (c : hconf) : bool :=
  (Heap.frontier (hc_heap c) + 64 <=? LIMIT) &&
  match fuel with
  | O => false
  | S f =>
      match hstep p (hc_env c) (hc_heap c) (hc_stmt c) with
      | HEnd _ => true
      | HStep ops he' s' _ => fits_b f p (mkhc he' (hrun ops (hc_heap c)) s')
      end
  end.
Definition fits_run (fuel : nat) (p : prog) (args : list Z) : bool :=
  match pdefs p with
  | d :: _ => match entry_env d args with Some e => fits_b fuel p (hinit HEAP_BASE d e) | None => true end
  | [] => true
  end.

Lemma hsteps_left p c tr c' : hsteps p c tr c' ->
  c' = c \/ exists ops he' s' pr tr', hstep p (hc_env c) (hc_heap c) (hc_stmt c) = HStep ops he' s' pr /\
                                      hsteps p (mkhc he' (hrun ops (hc_heap c)) s') tr' c'.
Proof.
  induction 1 as [c|c tr c1 ops he' s' pr H IH HS]; [now left|right].
  destruct IH as [->|(ops0 & he0 & s0 & pr0 & tr0 & HS0 & H0)].
  - exists ops, he', s', pr, []. split; [exact HS|apply hsteps_refl].
  - exists ops0, he0, s0, pr0, ((tr0 ++ ops)%list). split; [exact HS0|]. eapply hsteps_step; eauto.
Qed.
Lemma fits_b_sound p : forall fuel c, fits_b fuel p c = true ->
  forall tr c', hsteps p c tr c' -> Heap.frontier (hc_heap c') + 64 <= LIMIT.
Proof.
  induction fuel as [|f IH]; intros c H tr c' HS; cbn [fits_b] in H; apply andb_true_iff in H as [T H]; [discriminate|].
  apply Z.leb_le in T. destruct (hsteps_left p c tr c' HS) as [->|(ops & he' & s' & pr & tr' & E & HS')]; [exact T|].
  rewrite E in H. exact (IH _ H tr' c' HS').
Qed.
Theorem fits_run_sound fuel p args : fits_run fuel p args = true -> heap_fits p args.
Proof.
  intros H tr c (d & ds & e & PD & EN & HS). unfold fits_run in H. rewrite PD, EN in H.
  exact (fits_b_sound p fuel _ H tr c HS).
Qed.

(* x86_codegen_simulates with its decidable hypotheses as one conjunction (the shape of `hxe_hypotheses`); the
   conjunction is taken apart here, where the fuel is a variable *)
Lemma x86_codegen_simulates_checked p cs n args fuel :
  lin_check_prog p = true /\ ann_check_prog p = true /\ AxHeapTyping.entry_ext p = true /\
  plain_names p = true /\ plain_types p = true /\
  (exists lc', x86_compile p 0 = Ok (cs, n, lc')) /\ asm_wf cs = None /\ code_small cs = true /\
  fits_run fuel p args = true ->
  List.length args = n -> snd (run_linear fuel p args) <> OOutOfFuel ->
  exists outer inner, fst (run_x86 outer inner cs args) = run_linear fuel p args.
Proof.
  intros (H1 & H2 & H3 & H4 & H5 & (lc' & H6) & H7 & H8 & H9) LEN G.
  exact (x86_codegen_simulates p 0 cs n lc' args fuel _ H1 H2 H3 H4 H5 H6 H7 H8 LEN (fits_run_sound fuel _ _ H9) eq_refl G).
Qed.

Definition hxe_code : list xcode := match x86_compile hx_lin 0 with Ok (cs, _, _) => cs | Err _ => [] end.

Lemma hxe_hypotheses :
  lin_check_prog hx_lin = true /\ ann_check_prog hx_lin = true /\ AxHeapTyping.entry_ext hx_lin = true /\
  plain_names hx_lin = true /\ plain_types hx_lin = true /\
  (exists lc', x86_compile hx_lin 0 = Ok (hxe_code, 2%nat, lc')) /\ asm_wf hxe_code = None /\ code_small hxe_code = true /\
  fits_run 2000 hx_lin [3; 100] = true.
Proof.
  split; [vm_compute; reflexivity|]. split; [vm_compute; reflexivity|]. split; [vm_compute; reflexivity|].
  split; [vm_compute; reflexivity|]. split; [vm_compute; reflexivity|].
  split; [eexists; vm_compute; reflexivity|]. split; [vm_compute; reflexivity|]. split; [vm_compute; reflexivity|].
  vm_compute. reflexivity.
Qed.

(* both machines evaluated: three iterations, each allocating, sharing, loading and dropping objects; the closure adds
   the captured 100 *)
Lemma hxe_runs :
  run_linear 2000 hx_lin [3; 100] = ([(true, 106)], OExit 106) /\
  fst (run_x86 20 2000 hxe_code [3; 100]) = ([(true, 106)], OExit 106).
Proof. split; vm_compute; reflexivity. Qed.

(* and the theorem applies: there are step counts for which the x86-64 run gives the observation of the linear machine *)
Lemma hxe_simulated : exists outer inner, fst (run_x86 outer inner hxe_code [3; 100]) = run_linear 2000 hx_lin [3; 100].
Proof.
  apply (x86_codegen_simulates_checked hx_lin hxe_code 2 [3; 100] 2000 hxe_hypotheses eq_refl).
  rewrite (proj1 hxe_runs). discriminate.
Qed.
