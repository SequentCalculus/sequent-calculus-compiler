(* C09 on AArch64, loads: the code of `a_load` (memory.rs load / load_register / load_fields / load_values /
   load_value / load_field, Switch and Invoke of AxCut) on the AArch64 ISA semantics, one block at a time:
     a64_load_field_code_ok   one field into a register or (through TEMP = X2) into a spill slot;
     a64_load_value_ok        one variable: integer slot, pointer slot, in Share mode `share_block_n` of the loaded
                              pointer (count updated through TEMP2 = X3, so Share-mode code clobbers X3);
     a64_load_values_rev_ok   the loads of one block against `lv_abs`;
     a64_load_block_ok        one block of load_fields: (release_block,) (link load,) loads, pointer in register R.
   Code that only writes locations is framed by `same_except` (Proof/A64Sel.v) and `stack_frame`; once reference
   counts change, the lemmas say which heap words stay: those that are not block headers (`nonblk_same`).

   The abstract side - `share_on`, `lv_abs`, `lv_kids`, `blk_abs` and their pure lemmas - is that of
   Proof/X86MemLoad.v / X86MemLoadChain.v, used under qualified names through the notations below; the enumerations
   `load_mode` / `block_position` of Model/A64.v are mapped to those of Model/X86.v by `xm` / `xbp`; `X86.field_offset`
   is convertible to A64's (`fo`). *)
From Coq Require Import List ZArith NArith String Bool Lia FMapPositive.
From SCC Require Import Base.Sexp Lang.AxSyn Sem.AxSem Model.Backend Model.A64 Sem.A64Sem Generated.Constants
     Proof.A64State Proof.A64ImmHw Proof.A64Imm Proof.A64Sel Proof.A64Exec Proof.A64MemSubst Proof.A64Mem Proof.A64MemOps.
From SCC Require Model.Heap Model.X86 Sem.X86Sem Proof.X86Mem Proof.X86MemFrame Proof.X86MemStore Proof.X86MemLoad
     Proof.X86MemLoadChain.
Import ListNotations.
Open Scope list_scope.
Open Scope Z_scope.

Notation share_on := X86MemLoad.share_on.
Notation lv_abs := X86MemLoad.lv_abs.
Notation lv_kids := X86MemLoad.lv_kids.
Notation blk_abs := X86MemLoadChain.blk_abs.
Notation st_eqB_refl := X86Mem.st_eqB_refl.
Notation st_eqB_trans := X86Mem.st_eqB_trans.

Definition xm (m : load_mode) : X86.load_mode := match m with Release => X86.Release | Share => X86.Share end.
Definition xbp (b : block_position) : X86.block_position := match b with Last => X86.Last | Other => X86.Other end.
Lemma xm_share m : xm m = X86.Share -> m = Share. Proof. destruct m; [discriminate|reflexivity]. Qed.
Lemma bp_n_x bp : X86.bp_n (xbp bp) = bp_n bp. Proof. destruct bp; reflexivity. Qed.
Ltac fo := change X86.field_offset with field_offset in *.

Lemma share_h_snd p n h f : share_h p n (h, f) = (fst (share_h p n (h, 0)), f).
Proof. unfold share_h. cbn [fst snd]. destruct (p =? 0); reflexivity. Qed.

Definition load_field_code (t : atemp) (blk : areg) (off : Z) : list acode :=
  match t with AR r => [LDR r blk off] | AS p => [LDR TEMP blk off; STR TEMP SP (stack_offset p)] end.
(* the register that holds the loaded word afterwards *)
Definition held_in (t : atemp) : areg := match t with AR r => r | AS _ => TEMP end.
Lemma held_in_X k : exists r, held_in (tpos k) = X r /\ r <> 3%N.
Proof.
  unfold tpos, held_in. destruct (N.ltb_spec (k + 4) 30); [exists (k + 4)%N; split; [reflexivity|lia]|exists 2%N; split; [reflexivity|discriminate]].
Qed.

(* what a stretch of the walk leaves alone; in Share mode it adds at most n references to a block *)
Definition walk_frame (m : load_mode) (n : nat) (s s' : astate) (sp : Z) : Prop :=
  nonblk_same s s' /\
  (m = Share -> forall x, is_blk x -> hword s x <= hword s' x <= hword s x + Z.of_nat n) /\
  (exists h', rget s' HEAP = Some h') /\ out s' = out s /\ frame_ok s' sp /\ stack_frame s s' sp.

Lemma walk_frame_same m n s s' sp :
  (forall a, hword s' a = hword s a) -> (exists h', rget s' HEAP = Some h') -> out s' = out s -> frame_ok s' sp ->
  stack_frame s s' sp -> walk_frame m n s s' sp.
Proof.
  intros W H O FR SF. split; [intros a _; apply W|]. split; [intros _ x _; rewrite W; lia|]. auto.
Qed.

Lemma walk_frame_trans m n1 n2 n s s1 s2 sp : (n1 + n2 <= n)%nat ->
  walk_frame m n1 s s1 sp -> walk_frame m n2 s1 s2 sp -> walk_frame m n s s2 sp.
Proof.
  intros Hn (NB1 & Hd1 & _ & O1 & _ & SF1) (NB2 & Hd2 & HH2 & O2 & FR2 & SF2).
  split; [exact (nonblk_same_trans _ _ _ NB1 NB2)|].
  split; [intros Hm x Hx; specialize (Hd1 Hm x Hx); specialize (Hd2 Hm x Hx); lia|].
  split; [exact HH2|]. split; [congruence|]. split; [exact FR2|exact (stack_frame_trans _ _ _ _ SF1 SF2)].
Qed.

Section Load.
Variable im : image.

(* share_block_n on a pointer held in a register X r, which may be TEMP (r <> 3: the count goes through TEMP2) *)
Lemma a64_share_reg_frame pos r n lc s p F :
  let cs := fst (a_share_block_n (AR (X r)) n lc) in
  code_at im pos cs -> labels_at im pos cs -> r <> 3%N ->
  rget s (X r) = Some p -> (p = 0 \/ is_blk p) ->
  (p <> 0 -> wrap (hword s p + Z.of_N n) = hword s p + Z.of_N n) ->
  exists s', exec_to im pos s (padd pos (List.length cs)) s' /\
     st_eqB (abs_heap F s') (Heap.share p (Z.of_N n) (abs_heap F s)) /\ sbt s s' /\
     (forall a, hword s' a = if negb (p =? 0) && (a =? p) then hword s p + Z.of_N n else hword s a).
Proof.
  intros cs HC HL N3 P Hp Hw. unfold cs in *. clear cs. cbn [a_share_block_n] in *.
  destruct (a64_share_reg im pos s r n lc p HC HL N3 P (blk0_block_ok p Hp)) as (s' & EX & EH & Rs & ST & OUT & _).
  destruct (share_h_abs F s s' p (Z.of_N n) 0 Hp Hw ltac:(apply Rs; discriminate) ltac:(apply Rs; discriminate)) as [EQ W].
  { rewrite share_h_snd. now rewrite EH. }
  exists s'. split; [exact EX|]. split; [exact EQ|]. split; [|exact W].
  split; [intros r' _ N; apply Rs, N|auto].
Qed.

Lemma load_field_shape n c blk j cs :
  load_field n c blk j = Ok cs ->
  (2 * N.of_nat (List.length c) + tnum_n n < MAXPOS)%N /\
  cs = load_field_code (tpos (2 * N.of_nat (List.length c) + tnum_n n)) blk (field_offset n j).
Proof.
  unfold load_field. destruct (a_fresh n c) as [t|] eqn:Et; [|discriminate]. cbn [rbind].
  apply a_fresh_tpos in Et as [-> Hk]. intros H. inversion H. split; [exact Hk|]. reflexivity.
Qed.

Lemma same_except_heap F D s s' sp :
  same_except D s s' sp -> ~ In (AR HEAP) D -> ~ In (AR FREE) D ->
  abs_heap F s' = abs_heap F s /\ (forall a, hword s' a = hword s a).
Proof.
  intros (L & H & _) NH NF. split; [|intros a; unfold hword; now rewrite H].
  apply abs_heap_ext; [exact H|apply (L (AR HEAP) I NH)|apply (L (AR FREE) I NF)].
Qed.

(* LDR into the register of [t], or into TEMP and from there into the slot of [t] *)
Lemma a64_load_field_code_ok pos t blk off s sp p :
  code_at im pos (load_field_code t blk off) ->
  frame_ok s sp -> loc_ok t -> gp blk ->
  rget s blk = Some p -> heap_addr (p + off) ->
  exists s', exec_to im pos s (padd pos (List.length (load_field_code t blk off))) s' /\
    lget s' sp t = Some (hword s (p + off)) /\ rget s' (held_in t) = Some (hword s (p + off)) /\
    same_except [t; AR TEMP] s s' sp /\ stack_frame s s' sp.
Proof.
  intros HC FR T G R Ha. pose proof (step_LDR_h im s (held_in t) blk off p G R Ha) as LD.
  set (w := Some (hword s (p + off))) in *.
  destruct t as [r|q]; cbn [load_field_code List.length held_in] in *.
  - exists (lset s sp (AR r) w). split; [nxt HC 0%nat; [exact LD|apply exec_refl]|].
    split; [apply rget_rset_same, T|]. split; [apply rget_rset_same, T|].
    split; [apply same_except_lset; [apply same_except_refl, FR|exact T]|apply stack_frame_eq, stack_rset].
  - pose proof (same_except_write s sp (AR TEMP) w FR I) as P1. set (s1 := lset s sp (AR TEMP) w) in *.
    assert (W1 : rget s1 TEMP = w) by (apply rget_rset_same; exact I).
    exists (lset s1 sp (AS q) w). split; [|split; [|split; [|split]]].
    + nxt HC 0%nat; [exact LD|].
      nxt HC 1%nat; [rewrite (step_STR_slot im s1 sp (same_except_frame _ _ _ _ P1)), W1 by exact T; reflexivity|].
      apply exec_refl.
    + apply lget_lset_same, T.
    + rewrite <- W1. apply rget_sset.
    + apply same_except_lset; [exact P1|exact T].
    + apply (stack_frame_trans s s1); [apply stack_frame_eq, stack_rset|apply stack_frame_sset, T].
Qed.

Lemma load_value_shape b c blk j m lc cs lc' :
  load_value b c blk j m lc = Ok (cs, lc') ->
  let kF := (2 * N.of_nat (List.length c))%N in
  let cS := load_field_code (tpos (kF + 1)) blk (field_offset Snd j) in
  let cF := load_field_code (tpos kF) blk (field_offset Fst j) in
  let sh := a_share_block_n (AR (held_in (tpos kF))) 1 lc in
  (kF + 1 < MAXPOS)%N /\
  ((bchi b = Ext /\ cs = cS /\ lc' = lc) \/
   (bchi b <> Ext /\ m = Release /\ cs = cS ++ cF /\ lc' = lc) \/
   (bchi b <> Ext /\ m = Share /\ cs = cS ++ cF ++ fst sh /\ lc' = snd sh)).
Proof.
  intros H kF cS cF sh. unfold load_value in H.
  destruct (load_field Snd c blk j) as [c1|] eqn:E1; [|discriminate]. cbn [rbind] in H.
  apply load_field_shape in E1 as [K1 ->]. cbn [tnum_n] in K1, H. fold kF in K1. fold cS in H. split; [exact K1|].
  destruct (bchi b).
  3: { inversion H. left. auto. }
  (* the two kinds of pointer variable are treated alike *)
  all: right.
  all: destruct (load_field Fst c blk j) as [c2|] eqn:E2; [|discriminate]; cbn [rbind] in H.
  all: apply load_field_shape in E2 as [_ ->].
  all: destruct (a_fresh Fst c) as [t|] eqn:Et; [|discriminate]; cbn [rbind] in H.
  all: apply a_fresh_tpos in Et as [-> _].
  all: cbn [tnum_n] in H; rewrite N.add_0_r in H; fold kF in H; fold cF (held_in (tpos kF)) in H.
  all: destruct m; [left|right; fold sh in H; destruct sh as [c3 lc1]].
  all: inversion H; repeat split; auto; discriminate.
Qed.

(* the integer slot, then the pointer slot, of variable number kF / 2 *)
Lemma a64_load_pair_ok pos kF blk j s sp p :
  let cS := load_field_code (tpos (kF + 1)) blk (field_offset Snd j) in
  let cF := load_field_code (tpos kF) blk (field_offset Fst j) in
  let wF := hword s (p + field_offset Fst j) in
  code_at im pos (cS ++ cF) -> (kF + 1 < MAXPOS)%N -> (j < 3)%N ->
  frame_ok s sp -> gp blk -> rget s blk = Some p -> is_blk p -> blk <> TEMP -> AR blk <> tpos (kF + 1) ->
  exists s', exec_to im pos s (padd pos (List.length (cS ++ cF))) s' /\
    lget s' sp (tpos (kF + 1)) = Some (hword s (p + field_offset Snd j)) /\
    lget s' sp (tpos kF) = Some wF /\ rget s' (held_in (tpos kF)) = Some wF /\
    same_except [tpos kF; tpos (kF + 1); AR TEMP] s s' sp /\ stack_frame s s' sp.
Proof.
  intros cS cF wF HC K Hj FR G R Hb NB NS. apply code_at_app2 in HC as [HC1 HC2].
  assert (K0 : (kF < MAXPOS)%N) by lia.
  destruct (a64_load_field_code_ok pos _ blk _ s sp p HC1 FR (tpos_loc_ok _ K) G R (field_addr _ _ _ Hb Hj))
    as (s1 & ST1 & V1 & _ & P1 & SF1).
  assert (R1 : rget s1 blk = Some p).
  { rewrite <- R. apply (proj1 P1 (AR blk) G). intros [E|[E|[]]]; congruence. }
  destruct (a64_load_field_code_ok _ _ blk _ s1 sp p HC2 (same_except_frame _ _ _ _ P1) (tpos_loc_ok _ K0) G R1
              (field_addr _ _ _ Hb Hj)) as (s2 & ST2 & V2 & H2 & P2 & SF2).
  unfold hword in V2, H2. rewrite (proj1 (proj2 P1)) in V2, H2.
  exists s2. split; [eapply exec_app_len; eassumption|]. split; [|split; [exact V2|split; [exact H2|split]]].
  - rewrite <- V1. apply (proj1 P2); [apply tpos_loc_ok, K|].
    intros [E|[E|[]]]; [apply tpos_inj in E; lia|exact (tpos_not_temp _ (eq_sym E))].
  - apply (same_except_incl _ _ _ _ _ (same_except_trans _ _ _ _ _ _ P1 P2)).
    intros l [<-|[<-|[<-|[<-|[]]]]]; cbn [In]; auto.
  - exact (stack_frame_trans _ _ _ _ SF1 SF2).
Qed.

Lemma a64_load_value_ok pos b c blk j m lc cs lc' s sp p F :
  load_value b c blk j m lc = Ok (cs, lc') ->
  code_at im pos cs -> labels_at im pos cs -> (j < 3)%N ->
  frame_ok s sp -> gp blk -> rget s blk = Some p -> is_blk p -> blk <> TEMP ->
  let kF := (2 * N.of_nat (List.length c))%N in
  AR blk <> tpos (kF + 1) ->
  let wS := hword s (p + field_offset Snd j) in
  let wF := hword s (p + field_offset Fst j) in
  (share_on (xm m) b = true -> wF = 0 \/ is_blk wF) ->
  (share_on (xm m) b = true -> wF <> 0 -> wrap (hword s wF + 1) = hword s wF + 1) ->
  exists s', exec_to im pos s (padd pos (List.length cs)) s' /\
    st_eqB (abs_heap F s') (if share_on (xm m) b then Heap.share wF 1 (abs_heap F s) else abs_heap F s) /\
    lget s' sp (tpos (kF + 1)) = Some wS /\
    (bchi b <> Ext -> lget s' sp (tpos kF) = Some wF) /\
    (forall l, loc_ok l -> l <> tpos kF -> l <> tpos (kF + 1) -> l <> AR TEMP -> l <> AR TEMP2 -> lget s' sp l = lget s sp l) /\
    (forall a, hword s' a = if share_on (xm m) b && negb (wF =? 0) && (a =? wF) then hword s wF + 1 else hword s a) /\
    out s' = out s /\ frame_ok s' sp /\ stack_frame s s' sp.
Proof.
  intros Hlv HC HL Hj FR G R Hb NB kF NS wS wF Hkid Hwrap.
  destruct (load_value_shape _ _ _ _ _ _ _ _ Hlv) as (K1 & Hshape). fold kF in K1, Hshape.
  (* what holds after the loads, which write the two temporaries and TEMP *)
  assert (Loaded : forall s', same_except [tpos kF; tpos (kF + 1); AR TEMP] s s' sp ->
     abs_heap F s' = abs_heap F s /\
     (forall l, loc_ok l -> l <> tpos kF -> l <> tpos (kF + 1) -> l <> AR TEMP -> l <> AR TEMP2 -> lget s' sp l = lget s sp l) /\
     (forall a, hword s' a = hword s a) /\ out s' = out s /\ frame_ok s' sp).
  { intros s' P. destruct (same_except_heap F _ _ _ _ P) as [EA W].
    1, 2: intros [E|[E|[E|[]]]]; revert E; (discriminate || apply tpos_not_reserved).
    split; [exact EA|]. split; [|split; [exact W|split; apply P]].
    intros l L N1 N2 N3 _. apply P; [exact L|]. intros [E|[E|[E|[]]]]; congruence. }
  destruct Hshape as [(Hext & -> & ->)|[(Hnext & -> & -> & ->)|(Hnext & -> & -> & ->)]].
  - (* integer variable *)
    rewrite (X86MemLoad.share_on_ext (xm m) b Hext). cbn [andb].
    destruct (a64_load_field_code_ok pos _ blk _ s sp p HC FR (tpos_loc_ok _ K1) G R (field_addr _ _ _ Hb Hj))
      as (s1 & ST1 & V1 & _ & P1 & SF1).
    destruct (Loaded s1) as (EA & Oth & W & O & FR1).
    { apply (same_except_incl _ _ _ _ _ P1), incl_tl, incl_refl. }
    exists s1. rewrite EA. split; [exact ST1|]. split; [apply st_eqB_refl|]. split; [exact V1|].
    split; [intros; contradiction|auto 10].
  - (* pointer, the block is released: no sharing *)
    change (xm Release) with X86.Release. rewrite X86MemLoad.share_on_release. cbn [andb].
    destruct (a64_load_pair_ok pos kF blk j s sp p HC K1 Hj FR G R Hb NB NS) as (s2 & ST2 & VS & VF & _ & P & SF).
    destruct (Loaded s2 P) as (EA & Oth & W & O & FR2).
    exists s2. rewrite EA. split; [exact ST2|]. split; [apply st_eqB_refl|auto 10].
  - (* pointer, shared *)
    change (xm Share) with X86.Share in *. rewrite (X86MemLoad.share_on_share b Hnext) in *. cbn [andb].
    rewrite app_assoc in *. apply code_at_app2 in HC as [HC1 HC3]. apply labels_at_app2 in HL as [_ HL3].
    destruct (a64_load_pair_ok pos kF blk j s sp p HC1 K1 Hj FR G R Hb NB NS) as (s2 & ST2 & VS & VF & H2 & P & SF).
    destruct (Loaded s2 P) as (EA & Oth & W & O & FR2).
    destruct (held_in_X kF) as (rh & Erh & Nrh). rewrite Erh in *.
    destruct (a64_share_reg_frame _ rh 1 lc s2 wF F HC3 HL3 Nrh H2 (Hkid eq_refl)) as (s3 & ST3 & EQ3 & SB & W3).
    { intros Hn. rewrite W. now apply Hwrap. }
    rewrite EA in EQ3. change (Z.of_N 1) with 1 in *.
    exists s3. split; [eapply exec_app_len; eassumption|]. split; [exact EQ3|].
    split; [rewrite (sbt_tpos _ _ _ _ SB); exact VS|]. split; [intros _; rewrite (sbt_tpos _ _ _ _ SB); exact VF|].
    split; [intros l L N1 N2 N3 N4; rewrite (sbt_lget _ _ _ _ SB N3 N4); now apply Oth|].
    split; [intros a; rewrite W3, !W; reflexivity|]. split; [destruct SB as (_ & _ & O3); congruence|].
    split; [exact (sbt_frame _ _ _ SB FR2)|exact (stack_frame_trans _ _ _ _ SF (stack_frame_sbt _ _ _ SB))].
Qed.

Lemma a64_load_values_rev_ok : forall bsrev existing blk ff m lc cs lc' pos s sp p F,
  load_values bsrev existing blk ff m lc = Ok (cs, lc') ->
  (N.of_nat (List.length bsrev) <= ff)%N -> (ff <= 3)%N ->
  code_at im pos cs -> labels_at im pos cs ->
  frame_ok s sp -> gp blk -> (bsrev <> [] -> rget s blk = Some p) -> is_blk p -> blk <> TEMP -> blk <> TEMP2 ->
  (forall k, (2 * N.of_nat (List.length existing) < k)%N -> AR blk <> tpos k) ->
  lv_kids (xm m) (hword s) bsrev p ff ->
  (m = Share -> forall x, is_blk x -> min_int <= hword s x /\ hword s x + Z.of_nat (List.length bsrev) <= max_int) ->
  exists s', exec_to im pos s (padd pos (List.length cs)) s' /\
    st_eqB (abs_heap F s') (lv_abs (xm m) (hword s) bsrev p ff (abs_heap F s)) /\
    (forall i b, nth_error (rev bsrev) i = Some b ->
       lget s' sp (tpos (2 * N.of_nat (List.length existing + i) + 1)) =
         Some (hword s (p + field_offset Snd (ff - N.of_nat (List.length bsrev) + N.of_nat i))) /\
       (bchi b <> Ext -> lget s' sp (tpos (2 * N.of_nat (List.length existing + i))) =
         Some (hword s (p + field_offset Fst (ff - N.of_nat (List.length bsrev) + N.of_nat i))))) /\
    (forall l, loc_ok l -> l <> AR TEMP -> l <> AR TEMP2 ->
       (forall k, (2 * N.of_nat (List.length existing) <= k < 2 * N.of_nat (List.length existing + List.length bsrev))%N -> l <> tpos k) ->
       lget s' sp l = lget s sp l) /\
    nonblk_same s s' /\
    (forall x, is_blk x -> hword s x <= hword s' x <= hword s x + Z.of_nat (List.length bsrev)) /\
    out s' = out s /\ frame_ok s' sp /\ stack_frame s s' sp.
Proof.
  induction bsrev as [|b rest IH]; intros existing blk ff m lc cs lc' pos s sp p F Hlv Hlen Hff HC HL FR G R Hb NB NB2 NK Kids Room.
  - cbn [load_values] in Hlv. inversion Hlv; subst cs lc'. exists s. cbn [List.length lv_abs padd rev].
    split; [apply exec_refl|]. split; [apply st_eqB_refl|]. split; [intros i b Hi; destruct i; discriminate|].
    split; [auto|]. split; [apply nonblk_same_refl|]. split; [intros; lia|]. split; [reflexivity|]. split; [exact FR|apply stack_frame_refl].
  - cbn [load_values] in Hlv. cbn [List.length] in Hlen.
    destruct (load_value b (existing ++ rev rest) blk (ff - 1) m lc) as [[c1 lc1]|] eqn:E1; [|discriminate]. cbn [rbind] in Hlv.
    destruct (load_values rest existing blk (ff - 1) m lc1) as [[c2 lc2]|] eqn:E2; [|discriminate]. cbn [rbind] in Hlv.
    inversion Hlv; subst cs lc'. clear Hlv.
    set (E := List.length existing) in *. set (n := List.length rest) in *.
    assert (HL' : List.length (existing ++ rev rest) = (E + n)%nat) by (rewrite app_length, rev_length; reflexivity).
    apply code_at_app2 in HC as [HC1 HC2]. apply labels_at_app2 in HL as [HL1 HL2].
    cbn [lv_kids] in Kids. fo. destruct Kids as [Kid1 Kids2].
    specialize (R ltac:(discriminate)).
    set (wF := hword s (p + field_offset Fst (ff - 1))) in *.
    destruct (a64_load_value_ok pos b (existing ++ rev rest) blk (ff - 1) m lc c1 lc1 s sp p F E1 HC1 HL1 ltac:(lia) FR G R Hb NB)
      as (s1 & ST1 & EQ1 & VS & VF & Oth1 & W1 & O1 & FR1 & SF1).
    { rewrite HL'. apply NK. lia. }
    { exact Kid1. }
    { intros Hsh Hn0. fold wF in Hn0 |- *. apply wrap_in64. destruct (Kid1 Hsh) as [|Kb]; [contradiction|].
      destruct (Room (xm_share _ (X86MemLoad.share_on_true _ _ Hsh)) wF Kb). cbn [List.length] in *. lia. }
    rewrite HL' in VS, VF, Oth1. fold wF in EQ1, VF, W1.
    assert (NB1 : nonblk_same s s1).
    { intros a Ha. rewrite W1. destruct (share_on (xm m) b); cbn [andb]; [|reflexivity].
      destruct (Z.eqb_spec wF 0); cbn [negb andb]; [reflexivity|]. destruct (Z.eqb_spec a wF) as [->|]; [|reflexivity].
      destruct (Kid1 eq_refl); contradiction. }
    assert (Hd1 : forall x, is_blk x -> hword s x <= hword s1 x <= hword s x + 1).
    { intros x Hx. rewrite W1. destruct (share_on (xm m) b && negb (wF =? 0) && (x =? wF)) eqn:Eb; [|lia].
      apply andb_true_iff in Eb as [_ Eb]. apply Z.eqb_eq in Eb. subst x. lia. }
    assert (Hfld : forall t j, (j < 3)%N -> hword s1 (p + field_offset t j) = hword s (p + field_offset t j)).
    { intros t j Hj. apply NB1. now apply field_not_blk. }
    assert (R1 : rest <> [] -> rget s1 blk = Some p).
    { intros Hne. change (lget s1 sp (AR blk) = Some p). rewrite Oth1; [exact R|exact G| | |congruence|congruence].
      - apply NK. destruct rest; [contradiction|]. unfold n. cbn [List.length]. lia.
      - apply NK. lia. }
    assert (Kids1 : lv_kids (xm m) (hword s1) rest p (ff - 1)).
    { eapply X86MemLoad.lv_kids_congr; [|lia|exact Kids2]. intros j Hj. symmetry. apply Hfld. lia. }
    destruct (IH existing blk (ff - 1)%N m lc1 c2 lc2 _ s1 sp p F E2 ltac:(lia) ltac:(lia) HC2 HL2 FR1 G R1 Hb NB NB2 NK Kids1)
      as (s2 & ST2 & EQ2 & V2 & Oth2 & NB2' & Hd2 & O2 & FR2 & SF2).
    { intros Hm x Hx. destruct (Room Hm x Hx), (Hd1 x Hx). cbn [List.length] in *. fold n. lia. }
    fold E n in V2, Oth2, Hd2.
    exists s2. split; [eapply exec_app_len; eassumption|]. split; [|split; [|split; [|split; [|split; [|split; [|split]]]]]].
    + cbn [lv_abs]. fo. fold wF. eapply st_eqB_trans; [exact EQ2|]. apply X86MemLoad.lv_abs_congr; auto; [|lia].
      intros j Hj. apply Hfld. lia.
    + cbn [rev List.length]. fold n. intros i b' Hi. apply nth_error_snoc in Hi as [Hi|[-> ->]].
      * assert (Hlt : (i < n)%nat) by (unfold n; rewrite <- rev_length; apply nth_error_Some; congruence).
        destruct (V2 i b' Hi) as [A B]. rewrite !Hfld in A, B by lia.
        replace (ff - N.of_nat (S n) + N.of_nat i)%N with (ff - 1 - N.of_nat n + N.of_nat i)%N by lia. auto.
      * (* the variable loaded first lies above the temporaries the later loads write *)
        rewrite rev_length. fold n. replace (ff - N.of_nat (S n) + N.of_nat n)%N with (ff - 1)%N by lia.
        pose proof (proj1 (load_value_shape _ _ _ _ _ _ _ _ E1)) as K1. cbv zeta in K1. rewrite HL' in K1.
        assert (Keep : forall k, (2 * N.of_nat (E + n) <= k < MAXPOS)%N -> lget s2 sp (tpos k) = lget s1 sp (tpos k)).
        { intros k Hk. apply Oth2; [apply tpos_loc_ok, Hk|apply tpos_not_temp|apply tpos_not_temp2|].
          intros k' Hk'. apply tpos_neq. lia. }
        split; [rewrite Keep by lia; exact VS|intros Hne; rewrite Keep by lia; exact (VF Hne)].
    + intros l L NT NT2 Hl. cbn [List.length] in Hl. fold n in Hl. rewrite Oth2, Oth1; auto.
      * apply Hl. lia.
      * apply Hl. lia.
      * intros k Hk. apply Hl. lia.
    + eapply nonblk_same_trans; eassumption.
    + intros x Hx. destruct (Hd1 x Hx), (Hd2 x Hx). cbn [List.length]. fold n. lia.
    + congruence.
    + exact FR2.
    + exact (stack_frame_trans _ _ _ _ SF1 SF2).
Qed.

Definition rel_code (m : load_mode) (r : areg) : list acode := match m with Release => release_block r | Share => [] end.
Definition link_load_code (bp : block_position) (klink : N) (R : areg) : list acode :=
  match bp with Other => load_field_code (tpos klink) R (field_offset Fst 2) | Last => [] end.

(* release_block in Release mode: the block goes to the head of the free list *)
Lemma a64_rel_code_ok pos m R s sp p h F :
  code_at im pos (rel_code m R) -> frame_ok s sp -> gp R -> rget s R = Some p -> rget s HEAP = Some h -> is_blk p ->
  exists s', exec_to im pos s (padd pos (List.length (rel_code m R))) s' /\
    st_eqB (abs_heap F s') (match m with Release => Heap.release p (abs_heap F s) | Share => abs_heap F s end) /\
    (forall l, l <> AR HEAP -> lget s' sp l = lget s sp l) /\ (exists h', rget s' HEAP = Some h') /\
    (forall a, a <> p -> hword s' a = hword s a) /\ (m = Share -> forall a, hword s' a = hword s a) /\
    out s' = out s /\ frame_ok s' sp /\ stack s' = stack s.
Proof.
  intros HC FR G R0 Hh Hb. destruct m; cbn [rel_code] in *.
  - destruct (a64_release_block_ok im pos R s p h F HC G R0 Hh Hb) as (s1 & ST1 & EQ1 & Oth1 & H1 & Stk1 & O1 & W1).
    exists s1. split; [exact ST1|]. split; [exact EQ1|].
    split; [intros [r|q] Hl; cbn [lget]; [apply Oth1; congruence|unfold sget; now rewrite Stk1]|].
    split; [eauto|]. split; [intros a Ha; rewrite W1; now destruct (Z.eqb_spec a p)|]. split; [discriminate|].
    split; [exact O1|]. split; [|exact Stk1].
    destruct FR as (A & B). split; [|exact B]. change (spv s1) with (rget s1 SP). rewrite Oth1 by discriminate. exact A.
  - exists s. split; [apply exec_refl|]. split; [apply st_eqB_refl|]. split; [reflexivity|]. split; [eauto|]. auto 10.
Qed.

(* the link to the next block is the pointer slot of field 2 *)
Lemma a64_link_load_ok pos bp klink R s sp p :
  code_at im pos (link_load_code bp klink R) -> (bp = Other -> (klink < MAXPOS)%N) ->
  frame_ok s sp -> gp R -> rget s R = Some p -> is_blk p ->
  exists s', exec_to im pos s (padd pos (List.length (link_load_code bp klink R))) s' /\
    (bp = Other -> lget s' sp (tpos klink) = Some (hword s (p + 48))) /\
    same_except [tpos klink; AR TEMP] s s' sp /\ stack_frame s s' sp.
Proof.
  intros HC K FR G R0 Hb. destruct bp; cbn [link_load_code] in *.
  - exists s. split; [apply exec_refl|]. split; [discriminate|]. split; [apply same_except_refl, FR|apply stack_frame_refl].
  - destruct (a64_load_field_code_ok pos _ R _ s sp p HC FR (tpos_loc_ok _ (K eq_refl)) G R0 (field_addr p Fst 2 Hb eq_refl))
      as (s' & ST & V & _ & P & SF).
    exists s'. rewrite fo_F2 in V. auto.
Qed.

Lemma a64_load_block_ok pos bp next epr m lc lv lc' R klink s sp p h F :
  load_values (rev next) epr R (3 - bp_n bp) m lc = Ok (lv, lc') ->
  next <> [] -> (N.of_nat (List.length next) <= 3 - bp_n bp)%N ->
  klink = (2 * N.of_nat (List.length epr + List.length next))%N -> (bp = Other -> (klink < MAXPOS)%N) ->
  code_at im pos (rel_code m R ++ link_load_code bp klink R ++ lv) ->
  labels_at im pos (rel_code m R ++ link_load_code bp klink R ++ lv) -> frame_ok s sp ->
  gp R -> rget s R = Some p -> is_blk p -> rget s HEAP = Some h -> R <> TEMP -> R <> TEMP2 -> R <> HEAP ->
  (forall k, (2 * N.of_nat (List.length epr) < k)%N -> AR R <> tpos k) ->
  lv_kids (xm m) (hword s) (rev next) p (3 - bp_n bp) ->
  (m = Share -> forall x, is_blk x -> min_int <= hword s x /\ hword s x + Z.of_nat (List.length next) <= max_int) ->
  exists s', exec_to im pos s (padd pos (List.length (rel_code m R ++ link_load_code bp klink R ++ lv))) s' /\
    st_eqB (abs_heap F s') (blk_abs (xm m) (hword s) next p (3 - bp_n bp) (abs_heap F s)) /\
    (bp = Other -> lget s' sp (tpos klink) = Some (hword s (p + 48))) /\
    (forall i b, nth_error next i = Some b ->
       lget s' sp (tpos (2 * N.of_nat (List.length epr + i) + 1)) =
         Some (hword s (p + field_offset Snd (3 - bp_n bp - N.of_nat (List.length next) + N.of_nat i))) /\
       (bchi b <> Ext -> lget s' sp (tpos (2 * N.of_nat (List.length epr + i))) =
         Some (hword s (p + field_offset Fst (3 - bp_n bp - N.of_nat (List.length next) + N.of_nat i))))) /\
    (forall l, loc_ok l -> l <> AR TEMP -> l <> AR TEMP2 -> l <> AR HEAP ->
       (forall k, (2 * N.of_nat (List.length epr) <= k <= klink)%N -> l <> tpos k) ->
       lget s' sp l = lget s sp l) /\
    walk_frame m (List.length next) s s' sp.
Proof.
  intros Hlv Hne Hlen Hkl Hklm HC HL FR G R0 Hb Hh NT NT2 NH NK Kids Room.
  set (cap := (3 - bp_n bp)%N) in *. set (Eb := List.length epr) in *.
  assert (Hcap : (cap <= 3)%N) by (unfold cap; destruct bp; cbn; lia).
  assert (Hn1 : (1 <= List.length next)%nat) by (destruct next; [contradiction|cbn; lia]).
  fold Eb in Hkl.
  apply code_at_app2 in HC as [HC1 HC2]. apply labels_at_app2 in HL as [_ HL2].
  apply code_at_app2 in HC2 as [HC2 HC3]. apply labels_at_app2 in HL2 as [_ HL3].
  destruct (a64_rel_code_ok pos m R s sp p h F HC1 FR G R0 Hh Hb) as (s1 & ST1 & EQ1 & L1 & (h1 & H1) & W1 & Sh1 & O1 & FR1 & Stk1).
  assert (R1 : rget s1 R = Some p) by (rewrite <- R0; apply (L1 (AR R)); congruence).
  destruct (a64_link_load_ok _ bp klink R s1 sp p HC2 Hklm FR1 G R1 Hb) as (s2 & ST2 & Vl & P2 & SF2).
  destruct (same_except_heap F _ _ _ _ P2) as [EA2 W12].
  1, 2: intros [E|[E|[]]]; revert E; (discriminate || apply tpos_not_reserved).
  assert (L2 : forall l, loc_ok l -> l <> tpos klink -> l <> AR TEMP -> lget s2 sp l = lget s1 sp l).
  { intros l L N1 N2. apply P2; [exact L|]. intros [E|[E|[]]]; congruence. }
  assert (R2 : rget s2 R = Some p).
  { rewrite <- R1. apply (L2 (AR R) G); [apply NK; lia|congruence]. }
  assert (Hfld : forall t j, (j < 3)%N -> hword s2 (p + field_offset t j) = hword s (p + field_offset t j)).
  { intros t j Hj. rewrite W12. apply W1. rewrite field_offset_val. destruct t; cbn [tnum_n]; lia. }
  assert (Kids2 : lv_kids (xm m) (hword s2) (rev next) p cap).
  { eapply X86MemLoad.lv_kids_congr; [|rewrite rev_length; exact Hlen|exact Kids]. intros j Hj. symmetry. apply Hfld. lia. }
  destruct (a64_load_values_rev_ok (rev next) epr R cap m lc lv lc' _ s2 sp p F Hlv ltac:(rewrite rev_length; exact Hlen) Hcap HC3 HL3
              (same_except_frame _ _ _ _ P2) G (fun _ => R2) Hb NT NT2 NK Kids2)
    as (s3 & ST3 & EQ3 & V3 & L3 & NB3 & Hd3 & O3 & FR3 & SF3).
  { intros Hm x Hx. rewrite W12, (Sh1 Hm), rev_length. now apply Room. }
  rewrite rev_length, rev_involutive in *.
  exists s3. split; [|split; [|split; [|split; [|split; [|split; [|split; [|split; [|split; [|split]]]]]]]]].
  - rewrite !app_length, !padd_add. eapply exec_to_trans; [exact ST1|]. eapply exec_to_trans; [exact ST2|]. exact ST3.
  - unfold X86MemLoadChain.blk_abs. eapply st_eqB_trans; [exact EQ3|]. apply X86MemLoad.lv_abs_congr.
    + rewrite EA2. destruct m; exact EQ1.
    + intros j Hj. apply Hfld. lia.
    + rewrite rev_length. exact Hlen.
    + exact Kids2.
  - intros Ho. rewrite L3; [rewrite (Vl Ho), W1 by lia; reflexivity|apply tpos_loc_ok; auto|apply tpos_not_temp|apply tpos_not_temp2|].
    intros k Hk. apply tpos_neq. lia.
  - intros i b Hi. destruct (V3 i b Hi) as [A B].
    assert (Hi' : (i < List.length next)%nat) by (apply nth_error_Some; congruence).
    rewrite !Hfld in A, B by lia. auto.
  - intros l L N1 N1' N2 N3. rewrite L3; [|exact L|exact N1|exact N1'|intros k Hk; apply N3; lia].
    rewrite L2; [apply L1; exact N2|exact L|apply N3; lia|exact N1].
  - intros a Ha. rewrite NB3, W12 by exact Ha. apply W1. intros ->. contradiction.
  - intros Hm x Hx. specialize (Hd3 x Hx). rewrite W12, (Sh1 Hm) in Hd3. exact Hd3.
  - exists h1. rewrite <- H1. change (lget s3 sp (AR HEAP) = lget s1 sp (AR HEAP)).
    rewrite L3; [apply L2|exact I|discriminate|discriminate|]; [exact I|apply not_eq_sym, tpos_not_reserved|discriminate|].
    intros k _. apply not_eq_sym, tpos_not_reserved.
  - destruct P2 as (_ & _ & O2 & _). congruence.
  - exact FR3.
  - apply (stack_frame_trans s s2); [apply (stack_frame_trans s s1); [apply stack_frame_eq; exact Stk1|exact SF2]|exact SF3].
Qed.
End Load.

Print Assumptions a64_load_values_rev_ok.
Print Assumptions a64_load_block_ok.
