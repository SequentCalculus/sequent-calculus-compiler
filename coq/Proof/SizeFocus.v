(* C19, focusing: the focused statement is at most 4 times as heavy as the statement it comes from.
   Every non-value argument is named ONCE by a cut against a fresh mu / mu~ binding (3 nodes for the
   node it replaces); the continuation of `bind` is used exactly once, so nothing is copied.
   (Prog::focus first uniquifies the program; that renaming pass preserves the sizes: Proof/SizeUniquify.v,
   which also composes the two halves.) *)
From Coq Require Import String List ZArith NArith Bool Lia.
From SCC Require Import Base.Sexp Lang.SynUtil Lang.CoreSyn Lang.SynInd Lang.AxSize Lang.FsSize Lang.CoreSize
     Model.Backend Model.Uniquify Model.Focus Proof.SizeLin.
Import ListNotations.
Open Scope list_scope.
Open Scope N_scope.
Local Arguments N.add : simpl never.
Local Arguments N.mul : simpl never.
Local Arguments N.of_nat : simpl never.
Local Arguments len : simpl never.

Lemma c_wterm_xtor : forall c x args t, c_wterm (CXtor c x args t) = 1 + c_wargs args.
Proof. intros; simpl; f_equal; induction args as [|y r IH]; simpl; auto; rewrite IH; auto. Qed.
Lemma c_wterm_xcase : forall c cls t, c_wterm (CXCase c cls t) = 1 + c_wclauses cls.
Proof. intros; simpl; f_equal; induction cls as [|y r IH]; simpl; auto; rewrite IH; auto. Qed.
Lemma c_wstmt_call : forall f args t, c_wstmt (CCall f args t) = 1 + c_wargs args.
Proof. intros; simpl; f_equal; induction args as [|y r IH]; simpl; auto; rewrite IH; auto. Qed.
Lemma fs_wterm_xcase' : forall c cls t, fs_wterm (FsXCase c cls t) = 1 + fs_wclauses cls.
Proof. intros; simpl; f_equal; induction cls as [|y r IH]; simpl; auto; rewrite IH; auto. Qed.
Lemma c_warg_pos : forall a, 1 <= c_warg a.
Proof. destruct a as [p|p]; destruct p; simpl; lia. Qed.
Lemma c_wargs_len : forall l, len l <= c_wargs l.
Proof. induction l as [|a r IH]; simpl; unfold len in *; simpl List.length; [lia|]. pose proof (c_warg_pos a). lia. Qed.

Definition kbound (k : kont) (B : N) : Prop := forall b m s m', k b m = Ok (s, m') -> fs_wstmt s <= B.

(* the five mutually recursive functions, one invariant each.  Binding a term costs at most
   4 * weight - 1 (a variable costs nothing, a literal 3 nodes); the "- 1" per argument pays for the
   argument list of the focused xtor / call *)
Definition Pb (t : cterm) : Prop :=
  forall c k m s m' B, bind_term c t k m = Ok (s, m') -> kbound k B -> fs_wstmt s + 1 <= B + 4 * c_wterm t.
Definition Pa (a : carg) : Prop :=
  forall k m s m' B, bind_arg a k m = Ok (s, m') -> kbound k B -> fs_wstmt s + 1 <= B + 4 * c_warg a.
(* focus_stmt looks one level into the two sides of a cut (xtor arguments, operands): the invariant
   of a term carries those of its immediate sub-terms *)
Definition Pt (t : cterm) : Prop :=
  (forall c m t' m', focus_term c t m = Ok (t', m') -> fs_wterm t' <= 4 * c_wterm t) /\
  Pb t /\
  (forall c x args ty, t = CXtor c x args ty -> Forall Pa args) /\
  (forall a o b, t = COp a o b -> Pb a /\ Pb b).
Definition Pc (cl : cclause) : Prop :=
  forall m cl' m', focus_clause cl m = Ok (cl', m') -> fs_wclause cl' <= 4 * c_wclause cl.
Definition Ps (s : cstmt) : Prop :=
  forall m s' m', focus_stmt s m = Ok (s', m') -> fs_wstmt s' <= 4 * c_wstmt s.

Lemma bind_many_size : forall l, Forall Pa l ->
  forall (k : kontv) m s m' B, bind_many_with bind_arg l k m = Ok (s, m') ->
  (forall bs m s m', List.length bs = List.length l -> k bs m = Ok (s, m') -> fs_wstmt s <= B) ->
  fs_wstmt s + len l <= B + 4 * c_wargs l.
Proof.
  induction l as [|a r IH]; intros HF k m s m' B H Hk; cbn [bind_many_with] in H.
  - assert (Hs : fs_wstmt s <= B) by (apply (Hk [] m s m'); [reflexivity|exact H]). change (len (@nil carg)) with 0. cbn [c_wargs]. lia.
  - inversion HF as [|? ? Ha Hr]; subst. unfold Pa in Ha. rewrite len_cons.
    assert (Hr0 : len r <= 4 * c_wargs r) by (pose proof (c_wargs_len r); lia).
    eapply Ha with (B := B + 4 * c_wargs r - len r) in H.
    + simpl. lia.
    + intros b m1 s1 m1' H1. eapply IH with (B := B) in H1; eauto; [lia|].
      intros bs m2 s2 m2' Hl H2. eapply Hk; eauto. simpl. congruence.
Qed.

Lemma focus_clauses_size : forall cls, Forall Pc cls ->
  forall m cls' m', maprs focus_clause cls m = Ok (cls', m') -> fs_wclauses cls' <= 4 * c_wclauses cls.
Proof.
  induction cls as [|c r IH]; intros HF m cls' m' H; cbn [maprs] in H.
  - inversion H; subst. simpl. lia.
  - inversion HF as [|? ? Hc Hr]; subst. bind H. destruct x as [y m1]. bind H. destruct x as [r' m2]. inversion H; subst; clear H.
    apply Hc in E. eapply IH in E0; eauto. simpl. lia.
Qed.

Lemma cut_plain_size p t q : Pt p -> Pt q -> forall m s' m',
  (dor (p', m1) <- focus_term CPrd p m; dor (q', m2) <- focus_term CCns q m1; Ok (FsCut p' t q', m2)) = Ok (s', m') ->
  fs_wstmt s' <= 4 * c_wstmt (CCut p t q).
Proof.
  intros (Hpf & _) (Hqf & _) m s' m' G. bind G. destruct x as [p' m1]. bind G. destruct x as [q' m2]. inversion G; subst.
  apply Hpf in E. apply Hqf in E0. simpl. lia.
Qed.
Lemma cut_xtor_r_size p t qc qx qargs qt : Pt p -> Pt (CXtor qc qx qargs qt) -> forall m s' m',
  bind_many_with bind_arg qargs (fun bs mb => dor (p', m1) <- focus_term CPrd p mb; Ok (FsCut p' t (FsXtor qc qx bs t), m1)) m = Ok (s', m') ->
  fs_wstmt s' <= 4 * c_wstmt (CCut p t (CXtor qc qx qargs qt)).
Proof.
  intros (Hpf & _) (_ & _ & Hqx & _) m s' m' G. pose proof (Hqx _ _ _ _ eq_refl) as HFq.
  eapply bind_many_size with (B := 2 + len qargs + 4 * c_wterm p) in G; eauto.
  - cbn [c_wstmt]. rewrite c_wterm_xtor. lia.
  - intros bs mb s1 m1' Hlen H1. bind H1. destruct x as [p' m1]. inversion H1; subst. apply Hpf in E. simpl. unfold len in *. rewrite Hlen. lia.
Qed.
Lemma cut_xtor_l_size pc px pargs pt t q : Pt (CXtor pc px pargs pt) -> Pt q -> forall m s' m',
  bind_many_with bind_arg pargs (fun bs mb => dor (q', m1) <- focus_term CCns q mb; Ok (FsCut (FsXtor pc px bs t) t q', m1)) m = Ok (s', m') ->
  fs_wstmt s' <= 4 * c_wstmt (CCut (CXtor pc px pargs pt) t q).
Proof.
  intros (_ & _ & Hpx & _) (Hqf & _) m s' m' H. pose proof (Hpx _ _ _ _ eq_refl) as HFp.
  eapply bind_many_size with (B := 2 + len pargs + 4 * c_wterm q) in H; eauto.
  - cbn [c_wstmt]. rewrite c_wterm_xtor. lia.
  - intros bs mb s1 m1' Hlen H1. bind H1. destruct x as [q' m1]. inversion H1; subst. apply Hqf in E. simpl. unfold len in *. rewrite Hlen. lia.
Qed.
Lemma cut_op_size a o b t q : Pt (COp a o b) -> Pt q -> forall m s' m',
  bind_term CPrd a (fun b1 ma => bind_term CPrd b (fun b2 mb =>
     dor (q', m1) <- focus_term CCns q mb; Ok (FsCut (FsOp (cbvar b1) o (cbvar b2)) t q', m1)) ma) m = Ok (s', m') ->
  fs_wstmt s' <= 4 * c_wstmt (CCut (COp a o b) t q).
Proof.
  intros (_ & _ & _ & Hpo) (Hqf & _) m s' m' G. destruct (Hpo _ _ _ eq_refl) as [Ha Hb]. unfold Pb in Ha, Hb.
  eapply Ha with (B := 2 + 4 * c_wterm q + 4 * c_wterm b) in G; [simpl; lia|].
  intros b1 ma s1 m1' H1. eapply Hb with (B := 2 + 4 * c_wterm q) in H1; [lia|].
  intros b2 mb s2 m2' H2. bind H2. destruct x as [q' m1]. inversion H2; subst. apply Hqf in E. simpl. lia.
Qed.

Theorem focus_size_all : (forall t, Pt t) /\ (forall a, Pa a) /\ (forall c, Pc c) /\ (forall s, Ps s).
Proof.
  apply cterm_mutind; unfold Pt, Pb, Pc, Ps; fold Pa.
  - (* XVar *) intros c v t. split; [|split; [|split; [intros; try discriminate|intros; try discriminate]]].
    + intros c0 m t' m' H. cbn [focus_term] in H. inversion H; subst. simpl. lia.
    + intros c0 k m s m' B H Hk. cbn [bind_term] in H. apply Hk in H. simpl. lia.
  - (* Lit *) intros n. split; [|split; [|split; [intros; try discriminate|intros; try discriminate]]].
    + intros c m t' m' H. cbn [focus_term] in H. destruct c; inversion H; subst. simpl. lia.
    + intros c k m s m' B H Hk. cbn [bind_term] in H. destruct c; [|discriminate].
      destruct (fresh_var m) as [x m1]. bind H. destruct x0 as [s0 m2]. inversion H; subst; clear H.
      apply Hk in E. simpl. lia.
  - (* Op *) intros a o b (_ & Ha & _) (_ & Hb & _). split; [|split; [|split; [intros; try discriminate|intros; try discriminate]]].
    + intros c m t' m' H. cbn [focus_term] in H. destruct c; discriminate.
    + intros c k m s m' B H Hk. cbn [bind_term] in H. destruct c; [|discriminate].
      assert (1 <= c_wterm b) by (destruct b; simpl; lia).
      eapply Ha with (B := B + 2 + 4 * c_wterm b) in H; [simpl; lia|].
      intros b1 ma s1 m1' H1. eapply Hb with (B := B + 3) in H1; [lia|].
      intros b2 mb s2 m2' H2. destruct (fresh_var mb) as [x m1]. bind H2. destruct x0 as [s0 m2]. inversion H2; subst; clear H2.
      apply Hk in E. simpl. lia.
    + match goal with H : COp _ _ _ = COp _ _ _ |- _ => inversion H; subst; auto end.
  - (* Mu *) intros c v s t Hs. split; [|split; [|split; [intros; try discriminate|intros; try discriminate]]].
    + intros c0 m t' m' H. cbn [focus_term] in H. bind H. destruct x as [s' m1]. inversion H; subst. apply Hs in E. simpl. lia.
    + intros c0 k m s0 m' B H Hk. cbn [bind_term] in H. destruct c0.
      * destruct (fresh_var m) as [x m1]. bind H. destruct x0 as [s' m2]. bind H. destruct x0 as [sk m3]. inversion H; subst; clear H.
        apply Hs in E. apply Hk in E0. simpl. lia.
      * destruct (fresh_covar m) as [a m1]. bind H. destruct x as [sk m2]. bind H. destruct x as [s' m3]. inversion H; subst; clear H.
        apply Hk in E. apply Hs in E0. simpl. lia.
  - (* Xtor *) intros c x args t HF. split; [|split; [|split; [intros; try discriminate|intros; try discriminate]]].
    + intros c0 m t' m' H. cbn [focus_term] in H. discriminate.
    + intros c0 k m s m' B H Hk. cbn [bind_term] in H. rewrite c_wterm_xtor.
      destruct c0.
      * eapply bind_many_size with (B := B + 3 + len args) in H; eauto; [lia|].
        intros bs mb s1 m1' Hlen H1. destruct (fresh_var mb) as [nv m1]. bind H1. destruct x0 as [sk m2]. inversion H1; subst; clear H1.
        apply Hk in E. simpl. unfold len in *. rewrite Hlen. lia.
      * eapply bind_many_size with (B := B + 3 + len args) in H; eauto; [lia|].
        intros bs mb s1 m1' Hlen H1. destruct (fresh_covar mb) as [na m1]. bind H1. destruct x0 as [sk m2]. inversion H1; subst; clear H1.
        apply Hk in E. simpl. unfold len in *. rewrite Hlen. lia.
    + match goal with H : CXtor _ _ _ _ = CXtor _ _ _ _ |- _ => inversion H; subst; auto end.
  - (* XCase *) intros c cls t HF. split; [|split; [|split; [intros; try discriminate|intros; try discriminate]]].
    + intros c0 m t' m' H. cbn [focus_term] in H. bind H. destruct x as [cls' m1]. inversion H; subst.
      eapply focus_clauses_size in E; eauto. rewrite fs_wterm_xcase', c_wterm_xcase. lia.
    + intros c0 k m s m' B H Hk. cbn [bind_term] in H. rewrite c_wterm_xcase. destruct c0.
      * destruct (fresh_var m) as [x m1]. bind H. destruct x0 as [sk m2]. bind H. destruct x0 as [cls' m3]. inversion H; subst; clear H.
        apply Hk in E. eapply focus_clauses_size in E0; eauto. cbn [fs_wstmt]. rewrite fs_wterm_xcase'. simpl. lia.
      * destruct (fresh_covar m) as [a m1]. bind H. destruct x as [sk m2]. bind H. destruct x as [cls' m3]. inversion H; subst; clear H.
        apply Hk in E. eapply focus_clauses_size in E0; eauto. cbn [fs_wstmt]. rewrite fs_wterm_xcase'. simpl. lia.
  - (* Producer *) intros p (_ & Hp & _) k m s m' B H Hk. cbn [bind_arg] in H. eapply Hp in H; eauto.
  - (* Consumer *) intros p (_ & Hp & _) k m s m' B H Hk. cbn [bind_arg] in H. eapply Hp in H; eauto.
  - (* Clause *) intros c x cx body Hb m cl' m' H. cbn [focus_clause] in H. bind H. destruct x0 as [b' m1]. inversion H; subst.
    apply Hb in E. simpl. lia.
  - (* Cut: the four arms of cut.rs, tried in its order *)
    intros p t q Hp Hq m s' m'. fold (Pt p) in Hp. fold (Pt q) in Hq.
    destruct p; destruct q; intros H; cbn [focus_stmt] in H; revert H;
      lazymatch goal with
      | |- _ -> _ <= 4 * c_wstmt (CCut (CXtor _ _ _ _) _ _) => apply cut_xtor_l_size
      | |- _ -> _ <= 4 * c_wstmt (CCut _ _ (CXtor _ _ _ _)) => apply cut_xtor_r_size
      | |- _ -> _ <= 4 * c_wstmt (CCut (COp _ _ _) _ _) => apply cut_op_size
      | |- _ => apply cut_plain_size
      end; assumption.
  - (* IfC *) intros so a b t e (_ & Ha & _) Hb Ht He m s' m' H. cbn [focus_stmt] in H.
    destruct b as [b0|].
    + destruct (Hb b0 eq_refl) as (_ & Hb0 & _).
      eapply Ha with (B := 1 + 4 * c_wterm b0 + 4 * c_wstmt t + 4 * c_wstmt e) in H; [simpl; lia|].
      intros b1 ma s1 m1' H1. eapply Hb0 with (B := 1 + 4 * c_wstmt t + 4 * c_wstmt e) in H1; [lia|].
      intros b2 mb s2 m2' H2. bind H2. destruct x as [t' m1]. bind H2. destruct x as [e' m2]. inversion H2; subst.
      apply Ht in E. apply He in E0. simpl. lia.
    + eapply Ha with (B := 1 + 4 * c_wstmt t + 4 * c_wstmt e) in H; [simpl; lia|].
      intros b1 ma s1 m1' H1. bind H1. destruct x as [t' m1]. bind H1. destruct x as [e' m2]. inversion H1; subst.
      apply Ht in E. apply He in E0. simpl. lia.
  - (* Print *) intros nl a next (_ & Ha & _) Hn m s' m' H. cbn [focus_stmt] in H.
    eapply Ha with (B := 1 + 4 * c_wstmt next) in H; [simpl; lia|].
    intros b1 ma s1 m1' H1. bind H1. destruct x as [n' m1]. inversion H1; subst. apply Hn in E. simpl. lia.
  - (* Call *) intros f args t HF m s' m' H. cbn [focus_stmt] in H. rewrite c_wstmt_call.
    eapply bind_many_size with (B := 1 + len args) in H; eauto; [lia|].
    intros bs mb s1 m1' Hlen H1. inversion H1; subst. simpl. unfold len in *. rewrite Hlen. lia.
  - (* Exit *) intros a t (_ & Ha & _) m s' m' H. cbn [focus_stmt] in H.
    eapply Ha with (B := 1) in H; [simpl; lia|].
    intros b1 ma s1 m1' H1. inversion H1; subst. simpl. lia.
Qed.

Theorem focus_stmt_size : forall s m s' m', focus_stmt s m = Ok (s', m') -> fs_wstmt s' <= 4 * c_wstmt s.
Proof. intros s. destruct focus_size_all as (_ & _ & _ & H). apply H. Qed.

Lemma focus_defs_size : forall ds m ds' m', maprs focus_def ds m = Ok (ds', m') -> fs_wdefs ds' <= 4 * c_wdefs ds.
Proof.
  induction ds as [|d r IH]; intros m ds' m' H; cbn [maprs] in H.
  - inversion H; subst. simpl. lia.
  - bind H. destruct x as [d' m1]. bind H. destruct x as [r' m2]. inversion H; subst; clear H.
    apply IH in E0. unfold focus_def in E. bind E. destruct x as [b m3]. inversion E; subst; clear E.
    apply focus_stmt_size in E1. simpl. unfold fs_wdef, c_wdef. cbn [fsdctx fsdbody]. lia.
Qed.

(* Prog::focus = uniquify, then focus every definition: the bound relative to the UNIQUIFIED program *)
Theorem focus_prog_size_partial_lemma : forall p p1 q,
  uniquify_prog p = Ok p1 -> focus_prog p = Ok q -> fs_wprog q <= 4 * c_wprog p1.
Proof.
  intros p p1 q Hu H. unfold focus_prog in H. rewrite Hu in H. cbn [rbind] in H.
  bind H. destruct x as [ds m]. inversion H; subst. apply focus_defs_size in E. exact E.
Qed.
