(* C08, forward simulation for HEAP statements: the state relation between a configuration of the
   heap-instrumented linear machine (Sem/AxHeap.v: environment entries carry the block pointer, the abstract
   allocator state evolves by Heap.step) and a state of Sem/RVSem.v, for objects of at most three fields
   (one block).  It is the chain relation of Proof/RVKSimRel.v on small values (Proof/RVHChain.v), and the
   simulation theorems for it are obtained from the chain versions that way; what is proved here is
   `P03`, which the chain development shares.

     xrep w v q a     the value v is represented by the pointer word q and the data word a in the heap
                      words w: an integer z is (0, z); an object is (pointer to its fields, 4 * position of
                      its tag in the declaration: the jump-table offset `jump_length`); a closure is
                      (pointer to its captured environment, address of its code: `CLO`); the n <= 3 fields
                      sit right-aligned in the three slots of ONE block (pointer word at q + 16 (3 - n + i + 1),
                      data word 8 further), the unused leading slots hold null pointers; no field: pointer 0;
     hvrep            position i of the environment: an `ext i64` variable has its value in the SECOND
                      register; every other variable has the block pointer of the machine's entry in the
                      FIRST and the data word in the SECOND register;
     hrel             X2 / X3 = reuse list / deferred list of the abstract state, `abs_heap` = the abstract
                      state up to zero padding (`heq`). *)
From Coq Require Import List ZArith NArith String Bool Lia FMapPositive.
From SCC Require Import Base.Sexp Lang.AxSyn Sem.AxSem Sem.AxHeap Model.ParMoves Model.Backend Model.RV Sem.RVSem Sem.RVWf
     Generated.Constants Proof.RVSel Proof.SubstGraph Proof.SubstBackends Proof.RVSubst Proof.RVSimAddr Proof.RVSimRel
     Proof.RVHeapAbs Proof.RVHDefs Proof.RVHMem.
From SCC Require Model.Heap Proof.HeapMore Proof.HeapTrace Proof.HeapRep Proof.HeapRepAlloc Proof.HeapRepLoad Proof.X86HFrame.
Import ListNotations.
Open Scope Z_scope.
Open Scope list_scope.

Notation reach := HeapTrace.reach.

(* the typing context a captured environment stands for (names of the annotation, kinds and types of the values) *)
Definition ctx_of_env (ce : list (ident * value)) : ctx :=
  map (fun xv : ident * value => mkb (fst xv) (chi_of (snd xv)) (ty_of (snd xv))) ce.

(* the slot addresses of the n fields of the block q *)
Definition saddrs (q : Z) (n : nat) : list Z := map (slot_addr q n) (seq 0 n).

Section HRel.
Variable types : list tydecl.
(* what the data word of a closure points to: (address, type name, clauses, captured context) *)
Variable CLO : Z -> ident -> list clause -> ctx -> Prop.

(* the fields of an object have the kinds and types its constructor declares *)
Definition same_kinds (fs : list value) (sg : ctx) : Prop :=
  Forall2 (fun f b => chi_of f = bchi b /\ ty_of f = bty b) fs sg.
Definition tag_word (tn tag : ident) (fs : list value) (a : Z) : Prop :=
  exists d k x, find (fun d => ident_eqb (tname d) tn) types = Some d /\
              xtor_position (txtors d) tag 0 = Ok k /\ a = jump_length k /\
              find (fun x => ident_eqb (xname x) tag) (txtors d) = Some x /\ same_kinds fs (xargs x).

Inductive xrep (w : Z -> Z) : value -> Z -> Z -> Prop :=
| xr_int z : xrep w (VInt z) 0 z
| xr_obj tn tag fs q a : tag_word tn tag fs a -> xflds w fs q -> xrep w (VObj tn tag fs) q a
| xr_clo tn cls ce q a : CLO a tn cls (ctx_of_env ce) -> xflds w (map snd ce) q -> xrep w (VClo tn cls ce) q a
with xflds (w : Z -> Z) : list value -> Z -> Prop :=
| xf_nil : xflds w [] 0
| xf_cons fs q :
    fs <> [] -> (List.length fs <= 3)%nat -> is_blk q ->
    (forall j, (j < 3 - List.length fs)%nat -> w (q + 16 * Z.of_nat (j + 1)) = 0) ->
    xreps w fs (saddrs q (List.length fs)) ->
    xflds w fs q
with xreps (w : Z -> Z) : list value -> list Z -> Prop :=
| xs_nil : xreps w [] []
| xs_cons v vs a al : xrep w v (w a) (w (a + 8)) -> xreps w vs al -> xreps w (v :: vs) (a :: al).

Scheme xrep_ind3 := Induction for xrep Sort Prop
  with xflds_ind3 := Induction for xflds Sort Prop
  with xreps_ind3 := Induction for xreps Sort Prop.
Combined Scheme xrep_mutind from xrep_ind3, xflds_ind3, xreps_ind3.

Lemma xreps_length w vs al : xreps w vs al -> List.length al = List.length vs.
Proof. induction 1; cbn; auto. Qed.

Lemma xflds_nil_inv w q : xflds w [] q -> q = 0.
Proof. inversion 1; [reflexivity|congruence]. Qed.

Inductive hvrep (s : rstate) (i : nat) : binding -> value -> Z -> Prop :=
| hv_int b z q t :
    bchi b = Ext -> bty b = I64 -> rtpos Snd i = Ok t -> rget s t = Some z -> hvrep s i b (VInt z) q
| hv_ptr b v q a t1 t2 :
    bchi b <> Ext -> chi_of v = bchi b -> ty_of v = bty b ->
    rtpos Fst i = Ok t1 -> rtpos Snd i = Ok t2 -> rget s t1 = Some q -> rget s t2 = Some a ->
    xrep (hword s) v q a -> hvrep s i b v q.

Record hrel (c : ctx) (he : henv) (hs : Heap.st) (s : rstate) : Prop := mk_hrel {
  hr_heapreg : rget s HEAP = Some (Heap.heap hs);
  hr_freereg : rget s FREE = Some (Heap.free hs);
  hr_heq : heq (abs_heap (Heap.frontier hs) s) hs;
  hr_ids : env_ids (erase_env he) = ids c;
  hr_nodup : NoDup (ids c);
  hr_vals : forall i x v q, nth_error he i = Some (x, v, q) -> exists b, nth_error c i = Some b /\ hvrep s i b v q
}.

Lemma hrel_length c he hs s : hrel c he hs s -> List.length he = List.length c.
Proof.
  intros R. pose proof (hr_ids _ _ _ _ R) as H. apply (f_equal (@List.length N)) in H.
  unfold env_ids, ids, erase_env in H. now rewrite !map_length in H.
Qed.
(* every position has registers: at most 14 variables *)
Lemma hrel_small c he hs s : hrel c he hs s -> (List.length he <= 14)%nat.
Proof.
  intros R. destruct (Nat.le_gt_cases (List.length he) 14) as [L|L]; [exact L|exfalso].
  destruct (nth_error he 14) as [[[x v] q]|] eqn:E; [|apply nth_error_None in E; lia].
  destruct (hr_vals _ _ _ _ R 14%nat x v q E) as (b & _ & V).
  assert (T : exists t, rtpos Snd 14 = Ok t) by (destruct V; eauto).
  destruct T as (t & T). apply rtpos_val in T. lia.
Qed.

End HRel.

Arguments hr_heapreg {types CLO c he hs s}.
Arguments hr_freereg {types CLO c he hs s}.
Arguments hr_heq {types CLO c he hs s}.
Arguments hr_ids {types CLO c he hs s}.
Arguments hr_nodup {types CLO c he hs s}.
Arguments hr_vals {types CLO c he hs s}.
Arguments hrel_length {types CLO c he hs s}.

(* P03: every block has no or three pointer slots *)
Definition P03 (hs : Heap.st) : Prop := forall x, Heap.ps (Heap.m hs x) = [] \/ List.length (Heap.ps (Heap.m hs x)) = 3%nat.
Notation P03_P3 := X86HFrame.P03_P3.
Notation P03_hrun := X86HFrame.P03_hrun.
Notation P03_init := X86HFrame.P03_init.
