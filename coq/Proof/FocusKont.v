(* C03, semantic preservation: the meta-level continuations of Model/Focus.v by name.

   Every `fun binding max_id => ...` closure that `Bind`/`Focusing` (focus.rs) builds is given a
   name here ([opL_k], [opR_k], [many_k], ...), parameterised by the continuations it captures, and
   the defining equations of [bind_term]/[focus_stmt] are restated with these names (all by
   [reflexivity]: the names are convertible with the text of Model/Focus.v).  The simulation
   (Proof/FocusRel.v, Proof/FocusSim.v) relates the machine continuations [mk] of Sem/CoreSem.v to
   these named continuations.
   At the end of the file: inversion of the result monad ([rbind_ok]; tactics [rinv], [okinv], [rb],
   [rb2]), which the Focus* and Uq* proof files import from here. *)
From Coq Require Import List ZArith NArith String Bool Lia.
From SCC Require Import Base.Sexp Lang.CoreSyn Model.Backend Model.Uniquify Model.Focus.
Import ListNotations.
Open Scope list_scope.

Definition bind_many := bind_many_with bind_arg.

(* op.rs: after both operands *)
Definition opR_k (b1 : cbinding) (o : cbinop) (k : kont) : kont :=
  fun b2 mb =>
    let '(x, m1) := fresh_var mb in
    dor (s, m2) <- k (mkcb x CPrd CI64) m1;
    Ok (FsCut (FsOp (cbvar b1) o (cbvar b2)) CI64 (FsMu CCns x s CI64), m2).
(* op.rs: after the first operand *)
Definition opL_k (b : cterm) (o : cbinop) (k : kont) : kont :=
  fun b1 ma => bind_term CPrd b (opR_k b1 o k) ma.

(* cut.rs, arm (Op, consumer) *)
Definition cutopR_k (b1 : cbinding) (o : cbinop) (ty : cty) (q : cterm) : kont :=
  fun b2 mb => dor (q', m1) <- focus_term CCns q mb; Ok (FsCut (FsOp (cbvar b1) o (cbvar b2)) ty q', m1).
Definition cutopL_k (b : cterm) (o : cbinop) (ty : cty) (q : cterm) : kont :=
  fun b1 ma => bind_term CPrd b (cutopR_k b1 o ty q) ma.

(* ifc.rs *)
Definition if2_k (so : cifsort) (b1 : cbinding) (t e : cstmt) : kont :=
  fun b2 mb =>
    dor (t', m1) <- focus_stmt t mb;
    dor (e', m2) <- focus_stmt e m1;
    Ok (FsIfC so (cbvar b1) (Some (cbvar b2)) t' e', m2).
Definition if1_k (so : cifsort) (b : option cterm) (t e : cstmt) : kont :=
  fun b1 ma =>
    match b with
    | None =>
        dor (t', m1) <- focus_stmt t ma;
        dor (e', m2) <- focus_stmt e m1;
        Ok (FsIfC so (cbvar b1) None t' e', m2)
    | Some b0 => bind_term CPrd b0 (if2_k so b1 t e) ma
    end.
(* print.rs, exit.rs *)
Definition print_k (nl : bool) (next : cstmt) : kont :=
  fun b1 ma => dor (n', m1) <- focus_stmt next ma; Ok (FsPrint nl (cbvar b1) n', m1).
Definition exit_k : kont := fun b1 ma => Ok (FsExit (cbvar b1), ma).

(* bind_many: |bindings| { bindings.push_front(binding); k(bindings) } *)
Definition cons_kv (b : cbinding) (kv : kontv) : kontv := fun bs m2 => kv (b :: bs) m2.
(* bind_many: |binding| bind_many(rest, ...) *)
Definition many_k (r : list carg) (kv : kontv) : kont := fun b m1 => bind_many r (cons_kv b kv) m1.

(* xtor.rs *)
Definition xtorP_kv (c' : cchi) (x : cident) (ty : cty) (k : kont) : kontv :=
  fun bs mb =>
    let '(nv, m1) := fresh_var mb in
    dor (sk, m2) <- k (mkcb nv CPrd ty) m1;
    Ok (FsCut (FsXtor c' x bs ty) ty (FsMu CCns nv sk ty), m2).
Definition xtorK_kv (c' : cchi) (x : cident) (ty : cty) (k : kont) : kontv :=
  fun bs mb =>
    let '(na, m1) := fresh_covar mb in
    dor (sk, m2) <- k (mkcb na CCns ty) m1;
    Ok (FsCut (FsMu CPrd na sk ty) ty (FsXtor c' x bs ty), m2).
(* cut.rs, arms (Xtor, consumer) and (producer, Xtor) *)
Definition cutP_kv (pc : cchi) (px : cident) (ty : cty) (q : cterm) : kontv :=
  fun bs mb => dor (q', m1) <- focus_term CCns q mb; Ok (FsCut (FsXtor pc px bs ty) ty q', m1).
Definition cutK_kv (qc : cchi) (qx : cident) (ty : cty) (p : cterm) : kontv :=
  fun bs mb => dor (p', m1) <- focus_term CPrd p mb; Ok (FsCut p' ty (FsXtor qc qx bs ty), m1).
(* call.rs *)
Definition call_kv (f : cident) : kontv := fun bs mb => Ok (FsCall f bs, mb).

(* the equations of Model/Focus.v with these names *)
Lemma bind_many_nil : forall kv m, bind_many [] kv m = kv [] m.
Proof. reflexivity. Qed.
Lemma bind_many_cons : forall a r kv m, bind_many (a :: r) kv m = bind_arg a (many_k r kv) m.
Proof. reflexivity. Qed.

Lemma bind_arg_prd : forall p k m, bind_arg (CProducer p) k m = bind_term CPrd p k m.
Proof. reflexivity. Qed.
Lemma bind_arg_cns : forall p k m, bind_arg (CConsumer p) k m = bind_term CCns p k m.
Proof. reflexivity. Qed.

Lemma bind_xvar : forall c c' v ty k m, bind_term c (CXVar c' v ty) k m = k (mkcb v c ty) m.
Proof. reflexivity. Qed.
Lemma bind_lit : forall n k m,
  bind_term CPrd (CLit n) k m =
  (dor (s, m2) <- k (mkcb ("x"%string, m + 1)%N CPrd CI64) (m + 1)%N;
   Ok (FsCut (FsLit n) CI64 (FsMu CCns ("x"%string, m + 1)%N s CI64), m2)).
Proof. reflexivity. Qed.
Lemma bind_op : forall a o b k m, bind_term CPrd (COp a o b) k m = bind_term CPrd a (opL_k b o k) m.
Proof. reflexivity. Qed.
Lemma bind_mu_prd : forall c' v s ty k m,
  bind_term CPrd (CMu c' v s ty) k m =
  (dor (s', m2) <- focus_stmt s (m + 1)%N;
   dor (sk, m3) <- k (mkcb ("x"%string, m + 1)%N CPrd ty) m2;
   Ok (FsCut (FsMu c' v s' ty) ty (FsMu CCns ("x"%string, m + 1)%N sk ty), m3)).
Proof. reflexivity. Qed.
Lemma bind_mu_cns : forall c' v s ty k m,
  bind_term CCns (CMu c' v s ty) k m =
  (dor (sk, m2) <- k (mkcb ("a"%string, m + 1)%N CCns ty) (m + 1)%N;
   dor (s', m3) <- focus_stmt s m2;
   Ok (FsCut (FsMu CPrd ("a"%string, m + 1)%N sk ty) ty (FsMu c' v s' ty), m3)).
Proof. reflexivity. Qed.
Lemma bind_xtor_prd : forall c' x args ty k m,
  bind_term CPrd (CXtor c' x args ty) k m = bind_many args (xtorP_kv c' x ty k) m.
Proof. reflexivity. Qed.
Lemma bind_xtor_cns : forall c' x args ty k m,
  bind_term CCns (CXtor c' x args ty) k m = bind_many args (xtorK_kv c' x ty k) m.
Proof. reflexivity. Qed.
Lemma bind_xcase_prd : forall c' cls ty k m,
  bind_term CPrd (CXCase c' cls ty) k m =
  (dor (sk, m2) <- k (mkcb ("x"%string, m + 1)%N CPrd ty) (m + 1)%N;
   dor (cls', m3) <- maprs focus_clause cls m2;
   Ok (FsCut (FsXCase c' cls' ty) ty (FsMu CCns ("x"%string, m + 1)%N sk ty), m3)).
Proof. reflexivity. Qed.
Lemma bind_xcase_cns : forall c' cls ty k m,
  bind_term CCns (CXCase c' cls ty) k m =
  (dor (sk, m2) <- k (mkcb ("a"%string, m + 1)%N CCns ty) (m + 1)%N;
   dor (cls', m3) <- maprs focus_clause cls m2;
   Ok (FsCut (FsMu CPrd ("a"%string, m + 1)%N sk ty) ty (FsXCase c' cls' ty), m3)).
Proof. reflexivity. Qed.

Lemma focus_cut_xtorP : forall pc px pargs pty ty q m,
  focus_stmt (CCut (CXtor pc px pargs pty) ty q) m = bind_many pargs (cutP_kv pc px ty q) m.
Proof. reflexivity. Qed.
Definition not_xtor (t : cterm) : Prop := match t with CXtor _ _ _ _ => False | _ => True end.
Lemma focus_cut_xtorK : forall p ty qc qx qargs qty m, not_xtor p ->
  focus_stmt (CCut p ty (CXtor qc qx qargs qty)) m = bind_many qargs (cutK_kv qc qx ty p) m.
Proof. intros p; destruct p; simpl; intros; try reflexivity; contradiction. Qed.
Lemma focus_cut_op : forall a o b ty q m, not_xtor q ->
  focus_stmt (CCut (COp a o b) ty q) m = bind_term CPrd a (cutopL_k b o ty q) m.
Proof. intros a o b ty q; destruct q; simpl; intros; try reflexivity; contradiction. Qed.
Definition head_prd (t : cterm) : Prop := match t with CXtor _ _ _ _ | COp _ _ _ => False | _ => True end.
Lemma focus_cut_heads : forall p ty q m, head_prd p -> not_xtor q ->
  focus_stmt (CCut p ty q) m =
  (dor (p', m1) <- focus_term CPrd p m; dor (q', m2) <- focus_term CCns q m1; Ok (FsCut p' ty q', m2)).
Proof.
  intros p ty q m Hp Hq. destruct p; try contradiction; destruct q; try contradiction; reflexivity.
Qed.
Lemma focus_ifc : forall so a b t e m, focus_stmt (CIfC so a b t e) m = bind_term CPrd a (if1_k so b t e) m.
Proof. intros. destruct b; reflexivity. Qed.
Lemma focus_print : forall nl a next m, focus_stmt (CPrint nl a next) m = bind_term CPrd a (print_k nl next) m.
Proof. reflexivity. Qed.
Lemma focus_call : forall f args ty m, focus_stmt (CCall f args ty) m = bind_many args (call_kv f) m.
Proof. reflexivity. Qed.
Lemma focus_exit : forall a ty m, focus_stmt (CExit a ty) m = bind_term CPrd a exit_k m.
Proof. reflexivity. Qed.

Lemma focus_term_xvar : forall c c' v ty m, focus_term c (CXVar c' v ty) m = Ok (FsXVar c' v ty, m).
Proof. reflexivity. Qed.
Lemma focus_term_mu : forall c c' v s ty m,
  focus_term c (CMu c' v s ty) m = (dor (s', m1) <- focus_stmt s m; Ok (FsMu c' v s' ty, m1)).
Proof. reflexivity. Qed.
Lemma focus_term_xcase : forall c c' cls ty m,
  focus_term c (CXCase c' cls ty) m = (dor (cls', m1) <- maprs focus_clause cls m; Ok (FsXCase c' cls' ty, m1)).
Proof. reflexivity. Qed.
Lemma focus_clause_eq : forall c' x ctx body m,
  focus_clause (CClause c' x ctx body) m = (dor (b', m1) <- focus_stmt body m; Ok (FsClause c' x ctx b', m1)).
Proof. reflexivity. Qed.

Lemma rbind_ok : forall (X Y : Type) (r : res X) (f : X -> res Y) y,
  rbind r f = Ok y -> exists x, r = Ok x /\ f x = Ok y.
Proof. intros X Y [x|msg] f y H; simpl in H; [eauto | discriminate]. Qed.

Ltac rinv H :=
  let x := fresh "x" in let E := fresh "E" in
  apply rbind_ok in H; destruct H as (x & E & H); try (destruct x as [? ?]).
Ltac okinv H := inversion H; subst; clear H.
(* the same with the names chosen by the caller *)
Ltac rb H x E := apply rbind_ok in H; destruct H as (x & E & H).
Ltac rb2 H x y E := apply rbind_ok in H; destruct H as ([x y] & E & H).
