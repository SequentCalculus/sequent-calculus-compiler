(* C06, forward simulation of the x86-64 code generator, part 3: PrintI64.  The code `x_print` emits
   (backup of the live caller-saved registers into free callee-saved registers or onto the stack,
   alignment padding, argument move, external call, restore) is executed on the external-call model of
   Sem/X86Sem.v (alignment check, havoc of every caller-saved register, of the flags and of the stack
   below rsp): for EVERY integer context - from one variable to beyond the register file - every live
   variable keeps its value, the value printed is the variable's, rsp is restored. *)
From Coq Require Import List ZArith NArith String Bool Lia FMapPositive SetoidList.
From SCC Require Import Base.Sexp Lang.AxSyn Sem.AxSem Model.ParMoves Model.Backend Model.X86 Sem.X86Sem
     Generated.Constants Proof.X86State Proof.X86Sel Proof.X86Exec Proof.X86ParMoves Proof.SubstGraph Proof.X86Subst
     Proof.LinBasics Proof.X86SimRel Proof.X86SimStmt.
Import ListNotations.
Open Scope Z_scope.
Open Scope list_scope.

Lemma fold_remove_find (l : list N) : forall (m : PM.t Z) (r : N),
  PM.find (N.succ_pos r) (fold_left (fun m r => PM.remove (N.succ_pos r) m) l m) =
  if existsb (N.eqb r) l then None else PM.find (N.succ_pos r) m.
Proof.
  induction l as [|x l IH]; intros m r; cbn [fold_left existsb]; [reflexivity|].
  rewrite IH. destruct (existsb (N.eqb r) l); [now rewrite orb_true_r|]. rewrite orb_false_r.
  destruct (N.eqb_spec r x) as [->|NE]; [apply PM.grs|]. apply PM.gro. intros E. apply succ_pos_inj in E. congruence.
Qed.
Lemma rget_havoc s x r : rget (havoc_call s x) r = if existsb (N.eqb r) caller_saved then None else rget s r.
Proof. unfold rget, havoc_call. cbn [regs]. apply fold_remove_find. Qed.

Section FoldFilter.
Variable P : positive -> bool.
Let stepf (a : PM.t Z) (p : positive * Z) := if P (fst p) then a else PM.add (fst p) (snd p) a.
Lemma ff_drop k : P k = true -> forall l acc, PM.find k (fold_left stepf l acc) = PM.find k acc.
Proof.
  intros Pk. induction l as [|[k' v'] l IH]; intros acc; cbn [fold_left]; [reflexivity|].
  rewrite IH. unfold stepf; cbn [fst snd]. destruct (P k') eqn:Pk'; [reflexivity|].
  apply PM.gso. congruence.
Qed.
Lemma ff_absent k : forall l acc, (forall v, ~ In (k, v) l) -> PM.find k (fold_left stepf l acc) = PM.find k acc.
Proof.
  induction l as [|[k' v'] l IH]; intros acc H; cbn [fold_left]; [reflexivity|].
  rewrite IH by (intros v Hv; apply (H v); now right). unfold stepf; cbn [fst snd].
  destruct (P k'); [reflexivity|]. apply PM.gso. intros ->. apply (H v'). now left.
Qed.
Lemma ff_keep k v : P k = false -> forall l acc,
  NoDupA (@PM.eq_key Z) l -> In (k, v) l -> PM.find k (fold_left stepf l acc) = Some v.
Proof.
  intros Pk. induction l as [|[k' v'] l IH]; intros acc ND Hin; [destruct Hin|].
  inversion ND as [|? ? NI ND']; subst. cbn [fold_left]. destruct Hin as [E|Hin].
  - inversion E; subst. rewrite ff_absent.
    + unfold stepf; cbn [fst snd]. rewrite Pk. apply PM.gss.
    + intros w Hw. apply NI. apply InA_alt. exists (k, w). split; [reflexivity|exact Hw].
  - now apply IH.
Qed.
End FoldFilter.

Definition kget (s : xstate) (a : Z) : option Z := PM.find (key a) (stack s).
Lemma key_pos a : 0 <= a -> Z.pos (key a) - 1 = a.
Proof. intros H. unfold key. rewrite Z2Pos.id by lia. lia. Qed.
Lemma kget_havoc s x a : 0 <= a -> kget (havoc_call s x) a = if a <? x then None else kget s a.
Proof.
  intros A. unfold kget, havoc_call. cbn [stack]. rewrite PM.fold_1.
  set (P := fun k : positive => Z.pos k - 1 <? x).
  change (fun (a0 : PM.t Z) (p : PM.key * Z) => if Z.pos (fst p) - 1 <? x then a0 else PM.add (fst p) (snd p) a0)
    with (fun (a0 : PM.t Z) (p : positive * Z) => if P (fst p) then a0 else PM.add (fst p) (snd p) a0).
  assert (PK : P (key a) = (a <? x)) by (unfold P; now rewrite key_pos).
  destruct (a <? x) eqn:LT.
  - rewrite (ff_drop P (key a) PK). apply PM.gempty.
  - destruct (PM.find (key a) (stack s)) as [v|] eqn:Fk.
    + apply (ff_keep P (key a) v PK); [apply PM.elements_3w|now apply PM.elements_correct].
    + rewrite ff_absent; [apply PM.gempty|]. intros v Hv. apply PM.elements_complete in Hv. congruence.
Qed.

Definition kset (s : xstate) (a : Z) (v : option Z) : xstate :=
  {| regs := regs s; heap := heap s;
     stack := match v with Some z => PM.add (key a) z (stack s) | None => PM.remove (key a) (stack s) end;
     flags := flags s; out := out s; hw := hw s |}.
Definition oset (s : xstate) (o : prints) : xstate :=
  {| regs := regs s; heap := heap s; stack := stack s; flags := flags s; out := o; hw := hw s |}.
Definition stk_ok (a : Z) : Prop := a mod 8 = 0 /\ STACK_LIMIT <= a /\ a + 8 <= STACK_TOP.

Ltac zlia := Z.to_euclidean_division_equations; lia.

Lemma stk_ok_facts a : stk_ok a -> aligned a = true /\ in_heap a = false /\ in_stack a = true /\ 0 <= a.
Proof.
  intros (A & L & H). unfold aligned, in_heap, in_stack, STACK_LIMIT, STACK_TOP, HEAP_BASE, HEAP_SIZE in *.
  rewrite A. repeat split; try reflexivity; try lia.
Qed.
Lemma mstore_stk s a v : stk_ok a -> mstore s a v = MOk (kset s a v).
Proof. intros H. destruct (stk_ok_facts a H) as (A & B & C & _). unfold mstore. rewrite A, B, C. reflexivity. Qed.
Lemma mload_stk s a : stk_ok a -> mload s a = MOk (kget s a).
Proof. intros H. destruct (stk_ok_facts a H) as (A & B & C & _). unfold mload. rewrite A, B, C. reflexivity. Qed.

Lemma kget_kset_same s a v : kget (kset s a v) a = v.
Proof. unfold kget, kset; destruct v; cbn; [apply PM.gss|apply PM.grs]. Qed.
Lemma kget_kset_other s a b v : 0 <= a -> 0 <= b -> a <> b -> kget (kset s a v) b = kget s b.
Proof.
  intros A B N. unfold kget, kset; destruct v; cbn; [apply PM.gso|apply PM.gro]; intros E; apply key_inj in E; auto.
Qed.
Lemma kget_rset s r v a : kget (rset s r v) a = kget s a. Proof. reflexivity. Qed.
Lemma kget_oset s o a : kget (oset s o) a = kget s a. Proof. reflexivity. Qed.
Lemma rget_kset s a v r : rget (kset s a v) r = rget s r. Proof. reflexivity. Qed.
Lemma rget_oset s o r : rget (oset s o) r = rget s r. Proof. reflexivity. Qed.
Lemma sget_kget s sp p : sget s sp p = kget s (slot_addr sp p). Proof. reflexivity. Qed.

Lemma rget_havoc_keep s x r : existsb (N.eqb r) caller_saved = false -> rget (havoc_call s x) r = rget s r.
Proof. intros H. now rewrite rget_havoc, H. Qed.
Lemma out_oset s o : out (oset s o) = o. Proof. reflexivity. Qed.
Lemma out_havoc s x : out (havoc_call s x) = out s. Proof. reflexivity. Qed.
Lemma heap_havoc s x : heap (havoc_call s x) = heap s. Proof. reflexivity. Qed.

Section PrintSteps.
Variable im : image.
Lemma step_PUSH s a x : rget s 0%N = Some x -> stk_ok (x - 8) ->
  step im (PUSH a) s = Next (rset (kset s (x - 8) (rget s a)) 0%N (Some (x - 8))).
Proof. intros R K. cbn [step]. unfold need, withm. rewrite R, mstore_stk by exact K. reflexivity. Qed.
Lemma step_POP s a x : rget s 0%N = Some x -> stk_ok x ->
  step im (POP a) s = Next (rset (rset s a (kget s x)) 0%N (Some (x + 8))).
Proof. intros R K. cbn [step]. unfold need, withm. rewrite R, mload_stk by exact K. reflexivity. Qed.
Lemma wrap_small z : min_int <= z <= max_int -> wrap z = z.
Proof. unfold wrap, min_int, max_int, two63, two64. intros H. rewrite Z.mod_small by lia. lia. Qed.
Lemma step_SUBI8 s x : rget s 0%N = Some x -> 0 <= x <= STACK_TOP ->
  step im (SUBI 0%N 8) s = Next (set_flags (rset s 0%N (Some (x - 8))) None).
Proof.
  intros R K. cbn [step]. change (fits32 8) with true. cbv iota.
  unfold need. rewrite R. rewrite wrap_small; [reflexivity|]. unfold min_int, max_int, two63, STACK_TOP in *. lia.
Qed.
Lemma step_ADDI8 s x : rget s 0%N = Some x -> 0 <= x <= STACK_TOP ->
  step im (ADDI 0%N 8) s = Next (set_flags (rset s 0%N (Some (x + 8))) None).
Proof.
  intros R K. cbn [step]. change (fits32 8) with true. cbv iota.
  unfold need. rewrite R. rewrite wrap_small; [reflexivity|]. unfold min_int, max_int, two63, STACK_TOP in *. lia.
Qed.
Definition print_name (nl : bool) : string := if nl then "println_i64" else "print_i64".
Lemma step_CALL s nl x v : rget s 0%N = Some x -> x mod 16 = 0 -> rget s 7%N = Some v ->
  step im (CALL (print_name nl)) s = Next (havoc_call (oset s ((nl, v) :: out s)) x).
Proof.
  intros R A V. destruct nl; cbn [print_name step String.eqb Ascii.eqb Bool.eqb orb]; unfold need; rewrite R;
    assert (E : (x mod 16 =? 0) = true) by (now apply Z.eqb_eq); rewrite E; cbn [negb]; rewrite V; reflexivity.
Qed.
End PrintSteps.

Lemma kget_havoc_keep s x a : 0 <= a -> x <= a -> kget (havoc_call s x) a = kget s a.
Proof. intros A B. rewrite kget_havoc by exact A. destruct (Z.ltb_spec a x); [lia|reflexivity]. Qed.
Lemma heap_oset s o : heap (oset s o) = heap s. Proof. reflexivity. Qed.

Ltac stk := unfold stk_ok, STACK_LIMIT, STACK_TOP; zlia.
Fixpoint movs (ps : list (N * N)) (s : xstate) : xstate :=
  match ps with [] => s | p :: ps => movs ps (rset s (fst p) (rget s (snd p))) end.
Lemma exec_movs im ps : forall s, exec_straight im (map (fun p : N * N => MOV (fst p) (snd p)) ps) s = Some (movs ps s).
Proof. induction ps as [|p ps IH]; intros s; cbn [map exec_straight movs]; [reflexivity|]. rewrite step_MOV. apply IH. Qed.
Lemma rget_movs_other ps : forall s r, ~ In r (map fst ps) -> rget (movs ps s) r = rget s r.
Proof.
  induction ps as [|p ps IH]; intros s r H; cbn [movs]; [reflexivity|]. cbn [map] in H.
  rewrite IH by (intros X; apply H; now right). apply rget_rset_other. intros E. apply H. now left.
Qed.
Lemma rget_movs_dest ps : forall s d r,
  NoDup (map fst ps) -> (forall p, In p ps -> ~ In (snd p) (map fst ps)) -> In (d, r) ps -> rget (movs ps s) d = rget s r.
Proof.
  induction ps as [|p ps IH]; intros s d r ND SRC Hin; [destruct Hin|]. cbn [movs]. cbn [map] in ND. inversion ND as [|? ? NI ND']; subst.
  destruct Hin as [->|Hin].
  - cbn [fst snd]. rewrite rget_movs_other by exact NI. apply rget_rset_same.
  - rewrite (IH _ d r ND'); auto.
    + apply rget_rset_other. intros E. apply (SRC (d, r)); [now right|]. cbn [snd map]. now left.
    + intros q Hq Hs. apply (SRC q); [now right|]. cbn [map]. now right.
Qed.
Lemma movs_frame ps : forall s, stack (movs ps s) = stack s /\ heap (movs ps s) = heap s /\ out (movs ps s) = out s.
Proof. induction ps as [|p ps IH]; intros s; cbn [movs]; [auto|]. destruct (IH (rset s (fst p) (rget s (snd p)))) as (A & B & C). auto. Qed.
Lemma kget_movs ps s a : kget (movs ps s) a = kget s a.
Proof. unfold kget. now rewrite (proj1 (movs_frame ps s)). Qed.

Fixpoint pushes (l : list N) (s : xstate) (x : Z) : xstate :=
  match l with [] => s | a :: l => pushes l (rset (kset s (x - 8) (rget s a)) 0%N (Some (x - 8))) (x - 8) end.
Lemma exec_pushes im l : forall s x,
  rget s 0%N = Some x -> x mod 8 = 0 -> STACK_LIMIT + 8 * Z.of_nat (List.length l) <= x -> x <= STACK_TOP ->
  exec_straight im (map PUSH l) s = Some (pushes l s x).
Proof.
  induction l as [|a l IH]; intros s x R A LO HI; cbn [map exec_straight pushes]; [reflexivity|].
  cbn [List.length] in LO. rewrite (step_PUSH im s a x R) by (unfold stk_ok, STACK_LIMIT, STACK_TOP in *; zlia).
  apply IH; [apply rget_rset_same|zlia|lia|lia].
Qed.
Lemma rget_pushes_sp l : forall s x, rget s 0%N = Some x -> rget (pushes l s x) 0%N = Some (x - 8 * Z.of_nat (List.length l)).
Proof.
  induction l as [|a l IH]; intros s x R; cbn [pushes List.length]; [rewrite R; f_equal; lia|].
  rewrite IH by apply rget_rset_same. f_equal. lia.
Qed.
Lemma rget_pushes_other l : forall s x r, r <> 0%N -> rget (pushes l s x) r = rget s r.
Proof.
  induction l as [|a l IH]; intros s x r H; cbn [pushes]; [reflexivity|].
  rewrite IH by exact H. rewrite rget_rset_other by congruence. apply rget_kset.
Qed.
Lemma kget_pushes_above l : forall s x a, 0 <= x - 8 * Z.of_nat (List.length l) -> x <= a -> kget (pushes l s x) a = kget s a.
Proof.
  induction l as [|b l IH]; intros s x a P H; cbn [pushes]; [reflexivity|]. cbn [List.length] in P.
  rewrite IH by lia. rewrite kget_rset. apply kget_kset_other; lia.
Qed.
Lemma kget_pushes_at l : forall s x j a,
  0 <= x - 8 * Z.of_nat (List.length l) -> ~ In 0%N l -> nth_error l j = Some a ->
  kget (pushes l s x) (x - 8 * (Z.of_nat j + 1)) = rget s a.
Proof.
  induction l as [|b l IH]; intros s x j a P NZ Hj; [destruct j; discriminate|]. cbn [pushes]. cbn [List.length] in P.
  destruct j as [|j]; cbn [nth_error] in Hj.
  - inversion Hj; subst b. rewrite kget_pushes_above by lia. rewrite kget_rset.
    replace (x - 8 * (Z.of_nat 0 + 1)) with (x - 8) by lia. apply kget_kset_same.
  - replace (x - 8 * (Z.of_nat (S j) + 1)) with (x - 8 - 8 * (Z.of_nat j + 1)) by lia.
    rewrite (IH _ (x - 8) j a); [|lia|intros H; apply NZ; now right|exact Hj].
    rewrite rget_rset_other; [apply rget_kset|]. intros E; subst a. apply NZ. right. eapply nth_error_In; eauto.
Qed.
Lemma pushes_frame l : forall s x, heap (pushes l s x) = heap s /\ out (pushes l s x) = out s.
Proof. induction l as [|a l IH]; intros s x; cbn [pushes]; [auto|]. destruct (IH (rset (kset s (x - 8) (rget s a)) 0%N (Some (x - 8))) (x - 8)) as (A & B). auto. Qed.

Fixpoint pops (q : list N) (s : xstate) (y : Z) : xstate :=
  match q with [] => s | a :: q => pops q (rset (rset s a (kget s y)) 0%N (Some (y + 8))) (y + 8) end.
Lemma exec_pops im q : forall s y,
  rget s 0%N = Some y -> y mod 8 = 0 -> STACK_LIMIT <= y -> y + 8 * Z.of_nat (List.length q) <= STACK_TOP ->
  exec_straight im (map POP q) s = Some (pops q s y).
Proof.
  induction q as [|a q IH]; intros s y R A LO HI; cbn [map exec_straight pops]; [reflexivity|].
  cbn [List.length] in HI. rewrite (step_POP im s a y R) by (unfold stk_ok, STACK_LIMIT, STACK_TOP in *; zlia).
  apply IH; [apply rget_rset_same|zlia|lia|lia].
Qed.
Lemma kget_pops q : forall s y a, kget (pops q s y) a = kget s a.
Proof. induction q as [|b q IH]; intros s y a; cbn [pops]; [reflexivity|]. now rewrite IH. Qed.
Lemma rget_pops_sp q : forall s y, rget s 0%N = Some y -> rget (pops q s y) 0%N = Some (y + 8 * Z.of_nat (List.length q)).
Proof.
  induction q as [|a q IH]; intros s y R; cbn [pops List.length]; [rewrite R; f_equal; lia|].
  rewrite IH by apply rget_rset_same. f_equal. lia.
Qed.
Lemma rget_pops_other q : forall s y r, r <> 0%N -> ~ In r q -> rget (pops q s y) r = rget s r.
Proof.
  induction q as [|a q IH]; intros s y r H NI; cbn [pops]; [reflexivity|].
  rewrite IH; [|exact H|intros X; apply NI; now right]. rewrite rget_rset_other by congruence.
  apply rget_rset_other. intros E; apply NI; now left.
Qed.
Lemma rget_pops_at q : forall s y j a, NoDup q -> ~ In 0%N q -> nth_error q j = Some a ->
  rget (pops q s y) a = kget s (y + 8 * Z.of_nat j).
Proof.
  induction q as [|b q IH]; intros s y j a ND NZ Hj; [destruct j; discriminate|]. cbn [pops]. inversion ND as [|? ? NI ND']; subst.
  destruct j as [|j]; cbn [nth_error] in Hj.
  - inversion Hj; subst b. rewrite rget_pops_other; [|intros E; subst a; apply NZ; now left|exact NI].
    rewrite rget_rset_other by (intros E; subst a; apply NZ; now left). rewrite rget_rset_same. f_equal. lia.
  - rewrite (IH _ (y + 8) j a ND'); [|intros H; apply NZ; now right|exact Hj].
    rewrite !kget_rset. f_equal. lia.
Qed.
Lemma pops_frame q : forall s y, heap (pops q s y) = heap s /\ out (pops q s y) = out s.
Proof. induction q as [|a q IH]; intros s y; cbn [pops]; [auto|]. destruct (IH (rset (rset s a (kget s y)) 0%N (Some (y + 8))) (y + 8)) as (A & B). auto. Qed.

Definition chunk (o : N) (b : binding) : list N :=
  match bchi b with Ext => [4 + 2 * o + 1] | _ => [4 + 2 * o; 4 + 2 * o + 1] end%N.
Fixpoint chunks (o : N) (c : ctx) : list N :=
  match c with [] => [] | b :: c => chunk o b ++ chunks (o + 1) c end.

Lemma nseq_succ a n : nseq a (N.of_nat (S n)) = a :: nseq (a + 1) (N.of_nat n).
Proof.
  unfold nseq. rewrite !Nat2N.id. cbn [seq map]. rewrite N2Nat.id.
  replace (N.to_nat (a + 1)) with (S (N.to_nat a)) by lia. reflexivity.
Qed.
(* the first four variables of the context are the ones that live in caller-saved registers *)
Lemma csri_shape c :
  caller_save_registers_info c = (N.max (2 * N.of_nat (List.length c) + 4) 12, chunks 0 (firstn 4 c)).
Proof.
  unfold caller_save_registers_info. f_equal.
  change (N.to_nat ((CALLER_SAVE_LAST + 1 - CALLER_SAVE_FIRST) / 2)) with 4%nat.
  generalize (firstn 4 c) 0%N. intros l. induction l as [|b l IH]; intros o; [reflexivity|].
  cbn [List.length]. rewrite nseq_succ. cbn [combine flat_map chunks]. now rewrite IH.
Qed.

Lemma chunk_range o b r : In r (chunk o b) -> (4 + 2 * o <= r < 4 + 2 * (o + 1))%N.
Proof. unfold chunk. destruct (bchi b); cbn [In]; lia. Qed.
Lemma chunk_NoDup o b : NoDup (chunk o b).
Proof. unfold chunk. destruct (bchi b); repeat constructor; cbn [In]; lia. Qed.
Lemma chunk_snd o b : In (5 + 2 * o)%N (chunk o b).
Proof. unfold chunk. replace (5 + 2 * o)%N with (4 + 2 * o + 1)%N by lia. destruct (bchi b); cbn [In]; auto. Qed.
Lemma chunk_fst o b : bchi b <> Ext -> In (4 + 2 * o)%N (chunk o b).
Proof. unfold chunk. destruct (bchi b); cbn [In]; auto. Qed.

Lemma chunks_range c : forall o r, In r (chunks o c) -> (4 + 2 * o <= r < 4 + 2 * (o + N.of_nat (List.length c)))%N.
Proof.
  induction c as [|b c IH]; intros o r H; [destruct H|]. cbn [chunks List.length] in *.
  apply in_app_iff in H as [H|H]; [apply chunk_range in H|apply IH in H]; lia.
Qed.
Lemma chunks_NoDup c : forall o, NoDup (chunks o c).
Proof.
  induction c as [|b c IH]; intros o; [constructor|]. cbn [chunks].
  apply NoDup_app_intro; [apply chunk_NoDup|apply IH|].
  intros r H1 H2. apply chunk_range in H1. apply chunks_range in H2. lia.
Qed.
Lemma chunks_incl c : forall o i b, nth_error c i = Some b -> incl (chunk (o + N.of_nat i) b) (chunks o c).
Proof.
  induction c as [|b0 c IH]; intros o i b H r Hr; [destruct i; discriminate|]. cbn [chunks]. apply in_app_iff.
  destruct i as [|i]; cbn [nth_error] in H.
  - inversion H; subst b0. left. now rewrite N.add_0_r in Hr.
  - right. apply (IH _ i b H). now replace (o + 1 + N.of_nat i)%N with (o + N.of_nat (S i))%N by lia.
Qed.
Lemma nth_error_firstn_lt {X} n : forall (l : list X) i, (i < n)%nat -> nth_error (firstn n l) i = nth_error l i.
Proof.
  induction n as [|n IH]; intros l i H; [lia|]. destruct l; [now destruct i|].
  destruct i; cbn [firstn nth_error]; [reflexivity|apply IH; lia].
Qed.

Record regs_ok (c : ctx) (regs : list N) : Prop := {
  ro_range : Forall (fun r => (4 <= r <= 11)%N) regs;
  ro_nodup : NoDup regs;
  ro_snd : forall i b, nth_error c i = Some b -> (i < 4)%nat -> In (5 + 2 * N.of_nat i)%N regs;
  ro_fst : forall i b, nth_error c i = Some b -> (i < 4)%nat -> bchi b <> Ext -> In (4 + 2 * N.of_nat i)%N regs
}.
Lemma csri_regs_ok c : regs_ok c (snd (caller_save_registers_info c)).
Proof.
  rewrite csri_shape. cbn [snd]. split.
  - apply Forall_forall. intros r H. apply chunks_range in H. pose proof (firstn_le_length 4 c). lia.
  - apply chunks_NoDup.
  - intros i b Hi Li. rewrite <- (nth_error_firstn_lt 4 c i Li) in Hi. apply (chunks_incl _ 0 i b Hi), chunk_snd.
  - intros i b Hi Li NE. rewrite <- (nth_error_firstn_lt 4 c i Li) in Hi. apply (chunks_incl _ 0 i b Hi), chunk_fst, NE.
Qed.

Lemma nseq_length a k : List.length (nseq a k) = N.to_nat k.
Proof. unfold nseq. now rewrite map_length, seq_length. Qed.
Lemma nseq_In a k x : In x (nseq a k) <-> (a <= x < a + k)%N.
Proof.
  unfold nseq. rewrite in_map_iff. split.
  - intros (y & <- & Hy). apply in_seq in Hy. lia.
  - intros H. exists (N.to_nat x). split; [lia|]. apply in_seq. lia.
Qed.
Lemma nseq_NoDup a k : NoDup (nseq a k).
Proof.
  unfold nseq. apply FinFun.Injective_map_NoDup; [|apply seq_NoDup]. intros x y H. lia.
Qed.

Lemma nth_error_rev_idx {X} (l : list X) : forall j x,
  nth_error l j = Some x -> nth_error (rev l) (List.length l - 1 - j) = Some x.
Proof.
  induction l as [|a l IH]; intros j x H; [destruct j; discriminate|]. cbn [rev List.length].
  destruct j as [|j]; cbn [nth_error] in H.
  - inversion H; subst. rewrite nth_error_app2 by (rewrite rev_length; lia).
    rewrite rev_length. replace (S (List.length l) - 1 - 0 - List.length l)%nat with O by lia. reflexivity.
  - assert (j < List.length l)%nat by (apply nth_error_Some; congruence).
    rewrite nth_error_app1 by (rewrite rev_length; lia).
    replace (S (List.length l) - 1 - S j)%nat with (List.length l - 1 - j)%nat by lia. now apply IH.
Qed.
Lemma caller_saved_high r : (12 <= r)%N -> existsb (N.eqb r) caller_saved = false.
Proof.
  intros H. unfold caller_saved. cbn [existsb]. repeat rewrite (proj2 (N.eqb_neq _ _)) by lia. reflexivity.
Qed.
Lemma caller_saved_range r : (4 <= r <= 11)%N -> existsb (N.eqb r) caller_saved = true.
Proof.
  intros H. assert (E : (r = 4 \/ r = 5 \/ r = 6 \/ r = 7 \/ r = 8 \/ r = 9 \/ r = 10 \/ r = 11)%N) by lia.
  repeat destruct E as [->|E]; try subst r; reflexivity.
Qed.

Section PrintCore.
Variable im : image.

(* rsp at the call: below the m pushed words, lowered by one more word when that is needed for 16-byte alignment *)
Definition call_sp (sp : Z) (m : nat) : Z := if Nat.even m then sp - 8 * Z.of_nat m - 8 else sp - 8 * Z.of_nat m.
Lemma call_sp_facts sp m : sp mod 16 = 8 -> (m <= 8)%nat ->
  call_sp sp m mod 16 = 0 /\ sp - 72 <= call_sp sp m <= sp - 8 * Z.of_nat m.
Proof.
  intros AL M8. unfold call_sp. destruct (Nat.even m) eqn:EV.
  - apply Nat.even_spec in EV. destruct EV as (k & ->). split; [zlia|lia].
  - assert (OD : Nat.odd m = true) by (unfold Nat.odd; now rewrite EV).
    apply Nat.odd_spec in OD. destruct OD as (k & ->). split; [zlia|lia].
Qed.

(* the pushes and the padding before the call *)
Lemma enter_call (l : list N) s sp :
  rget s 0%N = Some sp -> sp mod 8 = 0 -> STACK_LIMIT + 128 <= sp -> sp <= STACK_TOP ->
  (List.length l <= 8)%nat -> ~ In 0%N l ->
  exists s3, exec_straight im (map PUSH l ++ (if Nat.even (List.length l) then [SUBI STACK (address 1)] else [])) s = Some s3 /\
    rget s3 0%N = Some (call_sp sp (List.length l)) /\
    (forall r, r <> 0%N -> rget s3 r = rget s r) /\
    (forall a, sp <= a -> kget s3 a = kget s a) /\
    (forall j a, nth_error l j = Some a -> kget s3 (sp - 8 * (Z.of_nat j + 1)) = rget s a) /\
    out s3 = out s /\ heap s3 = heap s.
Proof.
  intros SP A8 RO HI M8 NZ. unfold STACK_LIMIT, STACK_TOP in *.
  rewrite exec_straight_app, (exec_pushes im l s sp SP A8) by (unfold reg in *; unfold STACK_LIMIT, STACK_TOP; lia).
  set (s2 := pushes l s sp).
  assert (SP2 : rget s2 0%N = Some (sp - 8 * Z.of_nat (List.length l))) by (apply rget_pushes_sp; exact SP).
  exists (if Nat.even (List.length l) then set_flags (rset s2 0%N (Some (sp - 8 * Z.of_nat (List.length l) - 8))) None else s2).
  unfold call_sp. destruct (Nat.even (List.length l)).
  - split.
    { cbn [exec_straight]. change (SUBI STACK (address 1)) with (SUBI 0%N 8).
      rewrite (step_SUBI8 im s2 _ SP2) by (unfold STACK_TOP; lia). reflexivity. }
    split; [apply rget_rset_same|]. split; [|split; [|split; [|split]]].
    + intros r H. rewrite rget_set_flags, rget_rset_other by congruence. apply rget_pushes_other; exact H.
    + intros a Ha. apply (kget_pushes_above l s sp a); lia.
    + intros j a Hj. apply (kget_pushes_at l s sp j a); auto. lia.
    + apply (proj2 (pushes_frame l s sp)).
    + apply (proj1 (pushes_frame l s sp)).
  - split; [reflexivity|]. split; [exact SP2|]. split; [|split; [|split; [|split]]].
    + intros r H. apply rget_pushes_other; exact H.
    + intros a Ha. apply (kget_pushes_above l s sp a); lia.
    + intros j a Hj. apply (kget_pushes_at l s sp j a); auto. lia.
    + apply (proj2 (pushes_frame l s sp)).
    + apply (proj1 (pushes_frame l s sp)).
Qed.

(* the padding undone and the pops after the call: every pushed register gets back the word pushed for it *)
Lemma leave_call (l : list N) s sp :
  rget s 0%N = Some (call_sp sp (List.length l)) -> sp mod 8 = 0 -> STACK_LIMIT + 128 <= sp -> sp <= STACK_TOP ->
  (List.length l <= 8)%nat -> NoDup l -> ~ In 0%N l ->
  exists s', exec_straight im ((if Nat.even (List.length l) then [ADDI STACK (address 1)] else []) ++ map POP (rev l)) s = Some s' /\
    rget s' 0%N = Some sp /\
    (forall j a, nth_error l j = Some a -> rget s' a = kget s (sp - 8 * (Z.of_nat j + 1))) /\
    (forall r, r <> 0%N -> ~ In r l -> rget s' r = rget s r) /\
    (forall a, kget s' a = kget s a) /\ out s' = out s /\ heap s' = heap s.
Proof.
  intros SP A8 RO HI M8 ND NZ. unfold STACK_LIMIT, STACK_TOP, call_sp in *.
  set (s7 := if Nat.even (List.length l) then set_flags (rset s 0%N (Some (sp - 8 * Z.of_nat (List.length l)))) None else s).
  assert (X7 : exec_straight im (if Nat.even (List.length l) then [ADDI STACK (address 1)] else []) s = Some s7).
  { unfold s7. destruct (Nat.even (List.length l)); [|reflexivity]. cbn [exec_straight].
    change (ADDI STACK (address 1)) with (ADDI 0%N 8). rewrite (step_ADDI8 im s _ SP) by (unfold STACK_TOP; lia).
    replace (sp - 8 * Z.of_nat (List.length l) - 8 + 8) with (sp - 8 * Z.of_nat (List.length l)) by lia. reflexivity. }
  assert (SP7 : rget s7 0%N = Some (sp - 8 * Z.of_nat (List.length l))).
  { unfold s7. destruct (Nat.even (List.length l)); [rewrite rget_set_flags; apply rget_rset_same|exact SP]. }
  assert (R7 : forall r, r <> 0%N -> rget s7 r = rget s r).
  { intros r H. unfold s7. destruct (Nat.even (List.length l)); [|reflexivity]. rewrite rget_set_flags. apply rget_rset_other. congruence. }
  assert (K7 : forall a, kget s7 a = kget s a) by (intros a; unfold s7; destruct (Nat.even (List.length l)); reflexivity).
  assert (OH7 : out s7 = out s /\ heap s7 = heap s) by (unfold s7; destruct (Nat.even (List.length l)); split; reflexivity).
  rewrite exec_straight_app, X7.
  rewrite (exec_pops im (rev l) s7 (sp - 8 * Z.of_nat (List.length l)) SP7)
    by (rewrite ?rev_length; unfold STACK_LIMIT, STACK_TOP; clear -A8 RO HI M8; zlia).
  eexists. split; [reflexivity|]. split; [|split; [|split; [|split; [|split]]]].
  - rewrite (rget_pops_sp _ _ _ SP7), rev_length. f_equal. lia.
  - intros j a Hj. assert (Lj : (j < List.length l)%nat) by (apply nth_error_Some; congruence).
    rewrite (rget_pops_at (rev l) s7 _ (List.length l - 1 - j) a);
      [|apply NoDup_rev; exact ND|rewrite <- in_rev; exact NZ|apply nth_error_rev_idx; exact Hj].
    rewrite K7. f_equal. lia.
  - intros r H NI. rewrite rget_pops_other; [apply R7; exact H|exact H|rewrite <- in_rev; exact NI].
  - intros a. rewrite kget_pops. apply K7.
  - rewrite (proj2 (pops_frame _ _ _)). apply OH7.
  - rewrite (proj1 (pops_frame _ _ _)). apply OH7.
Qed.

Lemma print_core (fb : N) (regs : list N) s sp nl z rs :
  (12 <= fb)%N -> Forall (fun r => (4 <= r <= 11)%N) regs -> NoDup regs ->
  frame_ok s sp -> sp mod 16 = 8 -> STACK_LIMIT + 128 <= sp ->
  rget s rs = Some z -> rs <> 0%N -> (rs < fb)%N ->
  exists s', exec_straight im (save_caller_save_registers fb regs ++ [MOV (arg 0) rs] ++ [CALL (print_name nl)]
                               ++ restore_caller_save_registers fb regs) s = Some s' /\
    rget s' 0%N = Some sp /\
    (forall r, In r regs -> rget s' r = rget s r) /\
    (forall r, r <> 0%N -> existsb (N.eqb r) caller_saved = false -> (r < fb)%N -> rget s' r = rget s r) /\
    (forall a, sp <= a -> kget s' a = kget s a) /\
    out s' = (nl, z) :: out s /\ heap s' = heap s.
Proof.
  intros FB RNG ND F AL RO RS NZ LT.
  destruct F as [SP (A8 & LO & HI)]. change SPILL_SPACE with 2048 in *.
  assert (HI' : sp <= STACK_TOP) by lia.
  assert (LEN8 : (List.length regs <= 8)%nat).
  { assert (INCL : incl regs (nseq 4 8)).
    { intros r Hr. rewrite Forall_forall in RNG. specialize (RNG r Hr). apply nseq_In. lia. }
    pose proof (NoDup_incl_length ND INCL) as L. now rewrite nseq_length in L. }
  unfold save_caller_save_registers, restore_caller_save_registers.
  set (used := backup_used fb regs).
  assert (USED : (used <= List.length regs)%nat /\ (N.of_nat used <= 16 - fb)%N).
  { unfold used, backup_used. change REGISTER_NUM with 16%N. split; lia. }
  destruct USED as [U1 U2].
  (* the registers backed up in callee-saved registers (pre, by the moves ps, back by pb) and the pushed ones (l) *)
  set (pre := firstn used regs). set (l := skipn used regs).
  assert (SPLIT : regs = pre ++ l) by (symmetry; apply firstn_skipn).
  assert (LPRE : List.length pre = used) by (unfold pre; rewrite firstn_length; lia).
  set (ix := combine (nseq 0 (N.of_nat used)) pre).
  set (ps := map (fun or_ : N * N => ((fb + fst or_)%N, snd or_)) ix).
  set (pb := map (fun or_ : N * N => (snd or_, (fb + fst or_)%N)) ix).
  assert (E1 : map (fun or_ : N * N => MOV (fb + fst or_)%N (snd or_)) ix = map (fun p : N * N => MOV (fst p) (snd p)) ps)
    by (unfold ps; rewrite map_map; reflexivity).
  assert (E2 : map (fun or_ : N * N => MOV (snd or_) (fb + fst or_)%N) ix = map (fun p : N * N => MOV (fst p) (snd p)) pb)
    by (unfold pb; rewrite map_map; reflexivity).
  fold ix. rewrite E1, E2. clear E1 E2.
  assert (LIX : List.length (nseq 0 (N.of_nat used)) = List.length pre) by (rewrite nseq_length; lia).
  assert (SND : map snd ix = pre) by (apply combine_map_snd; exact LIX).
  assert (FST : map fst ix = nseq 0 (N.of_nat used)) by (apply combine_map_fst; exact LIX).
  assert (PS_FST : map fst ps = map (fun o => (fb + o)%N) (nseq 0 (N.of_nat used))) by (unfold ps; rewrite map_map, <- FST, map_map; reflexivity).
  assert (PS_SND : map snd ps = pre) by (unfold ps; rewrite map_map; exact SND).
  assert (PB_FST : map fst pb = pre) by (unfold pb; rewrite map_map; exact SND).
  assert (PB_SND : map snd pb = map fst ps) by (unfold pb, ps; rewrite !map_map; reflexivity).
  assert (SWAP : forall d r, In (d, r) ps <-> In (r, d) pb).
  { intros d r. unfold ps, pb. rewrite !in_map_iff. split; intros ((o & q) & E & H); exists (o, q); cbn [fst snd] in *; split; auto; congruence. }
  assert (DST : forall d, In d (map fst ps) -> (fb <= d < 16)%N /\ (12 <= d)%N).
  { intros d Hd. rewrite PS_FST in Hd. apply in_map_iff in Hd as (o & <- & Ho). apply nseq_In in Ho. lia. }
  assert (ND_DST : NoDup (map fst ps)).
  { rewrite PS_FST. apply FinFun.Injective_map_NoDup; [|apply nseq_NoDup]. intros x y H. lia. }
  assert (RPRE : forall r, In r pre -> (4 <= r <= 11)%N).
  { intros r Hr. rewrite Forall_forall in RNG. apply RNG. rewrite SPLIT. apply in_app_iff. now left. }
  assert (RL : forall r, In r l -> (4 <= r <= 11)%N).
  { intros r Hr. rewrite Forall_forall in RNG. apply RNG. rewrite SPLIT. apply in_app_iff. now right. }
  assert (ND' : NoDup (pre ++ l)) by (rewrite <- SPLIT; exact ND).
  pose proof (NoDup_app_l _ _ ND') as NDpre. pose proof (NoDup_app_r _ _ ND') as NDl.
  assert (DISJ : forall r, In r pre -> ~ In r l) by (intros r A B; exact (NoDup_app_disj _ _ r ND' A B)).
  assert (M8 : (List.length l <= 8)%nat) by (unfold l; rewrite skipn_length; lia).
  assert (NZl : ~ In 0%N l) by (intros H; apply RL in H; lia).
  replace (List.length regs - used)%nat with (List.length l) by (unfold l; now rewrite skipn_length).
  destruct (call_sp_facts sp (List.length l) AL M8) as (XC16 & XCR).
  (* 1: backups *)
  rewrite <- !app_assoc. rewrite exec_straight_app, exec_movs.
  set (s1 := movs ps s).
  assert (R1 : forall r, ~ In r (map fst ps) -> rget s1 r = rget s r) by (intros; apply rget_movs_other; auto).
  assert (SP1 : rget s1 0%N = Some sp).
  { rewrite R1; auto. intros H. apply DST in H. lia. }
  (* 2: pushes and padding *)
  destruct (enter_call l s1 sp SP1 A8 RO HI' M8 NZl) as (s3 & E3 & SP3 & R3 & K3 & P3 & O3 & H3).
  rewrite app_assoc, exec_straight_app, E3.
  (* 3: argument and call *)
  change (arg 0) with 7%N. cbn [app exec_straight]. rewrite step_MOV.
  set (s4 := rset s3 7%N (rget s3 rs)).
  assert (RS4 : rget s4 7%N = Some z).
  { unfold s4. rewrite rget_rset_same, R3 by exact NZ. rewrite R1; [exact RS|]. intros H. apply DST in H. lia. }
  assert (SP4 : rget s4 0%N = Some (call_sp sp (List.length l))) by (unfold s4; rewrite rget_rset_other by discriminate; exact SP3).
  rewrite (step_CALL im s4 nl _ z SP4 XC16 RS4).
  set (s5 := havoc_call (oset s4 ((nl, z) :: out s4)) (call_sp sp (List.length l))).
  (* 4: restore *)
  rewrite exec_straight_app, exec_movs.
  set (s6 := movs pb s5).
  assert (SP6 : rget s6 0%N = Some (call_sp sp (List.length l))).
  { unfold s6. rewrite rget_movs_other; [|rewrite PB_FST; intros H; apply RPRE in H; lia].
    unfold s5. rewrite rget_havoc_keep by reflexivity. rewrite rget_oset. exact SP4. }
  assert (K6 : forall a, sp - 8 * Z.of_nat (List.length l) <= a -> kget s6 a = kget s3 a).
  { intros a Ha. unfold s6. rewrite kget_movs. unfold s5. rewrite kget_havoc_keep by (unfold STACK_LIMIT, STACK_TOP in *; lia). rewrite kget_oset.
    unfold s4. apply kget_rset. }
  destruct (leave_call l s6 sp SP6 A8 RO HI' M8 NDl NZl) as (s8 & E8 & SP8 & P8 & R8 & K8 & O8 & H8).
  rewrite E8. exists s8. split; [reflexivity|]. split; [exact SP8|].
  split; [|split; [|split; [|split]]].
  - intros r Hr. rewrite SPLIT in Hr. apply in_app_iff in Hr as [Hr|Hr].
    + (* backed up in a callee-saved register *)
      rewrite R8; [|intros E; subst r; apply RPRE in Hr; lia|apply DISJ; exact Hr].
      assert (exists d, In (d, r) ps) as (d & Hd).
      { rewrite <- PS_SND in Hr. apply in_map_iff in Hr as ((d & r') & E & H). cbn in E; subst r'. eauto. }
      unfold s6. rewrite (rget_movs_dest pb s5 r d).
      * assert (Dd : In d (map fst ps)) by (apply in_map_iff; exists (d, r); auto).
        destruct (DST d Dd) as (D1 & D2).
        unfold s5. rewrite rget_havoc_keep by (apply caller_saved_high; lia).
        rewrite rget_oset. unfold s4. rewrite rget_rset_other by lia. rewrite R3 by lia.
        unfold s1. apply (rget_movs_dest ps s d r ND_DST); auto.
        intros q Hq Hs. assert (In (snd q) pre) by (rewrite <- PS_SND; apply in_map; exact Hq).
        apply DST in Hs. apply RPRE in H. lia.
      * rewrite PB_FST. exact NDpre.
      * intros q Hq Hs. rewrite PB_FST in Hs. assert (In (snd q) (map fst ps)) by (rewrite <- PB_SND; apply in_map; exact Hq).
        apply DST in H. apply RPRE in Hs. lia.
      * apply SWAP. exact Hd.
    + (* pushed *)
      apply In_nth_error in Hr as (j & Hj).
      assert (Lj : (j < List.length l)%nat) by (apply nth_error_Some; congruence).
      rewrite (P8 j r Hj), K6 by lia. rewrite (P3 j r Hj).
      apply R1. intros H. apply DST in H. assert (In r l) by (eapply nth_error_In; eauto). apply RL in H0. lia.
  - intros r NZr CS LTr.
    assert (NR : ~ In r regs).
    { intros H. rewrite Forall_forall in RNG. specialize (RNG r H). rewrite (caller_saved_range r RNG) in CS. discriminate. }
    rewrite R8; [|exact NZr|intros H; apply NR; rewrite SPLIT; apply in_app_iff; now right].
    unfold s6. rewrite rget_movs_other.
    2:{ rewrite PB_FST. intros H. apply NR. rewrite SPLIT. apply in_app_iff. now left. }
    unfold s5. rewrite rget_havoc_keep by exact CS. rewrite rget_oset. unfold s4.
    rewrite rget_rset_other.
    2:{ intros E; subst r. discriminate. }
    rewrite R3 by exact NZr. apply R1. intros H. apply DST in H. lia.
  - intros a Ha. rewrite K8, K6, K3 by lia. unfold s1. apply kget_movs.
  - rewrite O8. unfold s6. rewrite (proj2 (proj2 (movs_frame _ _))). unfold s5. rewrite out_havoc, out_oset. unfold s4.
    rewrite out_rset, O3. unfold s1. now rewrite (proj2 (proj2 (movs_frame _ _))).
  - rewrite H8. unfold s6. rewrite (proj1 (proj2 (movs_frame _ _))). unfold s5. rewrite heap_havoc, heap_oset. unfold s4.
    rewrite heap_rset, H3. unfold s1. apply (proj1 (proj2 (movs_frame _ _))).
Qed.
End PrintCore.

Definition above_eq (s s' : xstate) (sp : Z) : Prop :=
  heap s' = heap s /\ (forall a, sp <= a -> kget s' a = kget s a).

Lemma xtpos_shape n j t : xtpos n j = Ok t ->
  ((j < 6)%nat /\ t = XR (4 + 2 * N.of_nat j + tnum_n n)%N) \/ ((6 <= j)%nat /\ exists p, t = XS p /\ slot_ok p).
Proof.
  intros H. pose proof (xtpos_ok _ _ _ H) as (L & _).
  unfold tpos, x86_backend, x86_backend_with, b_temporary_from_position, temporary_from_position in H.
  change RESERVED with 4%N in H. change REGISTER_NUM with 16%N in H.
  assert (TN : (tnum_n n <= 1)%N) by (destruct n; cbn; lia).
  destruct (N.ltb_spec (2 * N.of_nat j + tnum_n n + 4) 16).
  - left. assert (E : t = XR (2 * N.of_nat j + tnum_n n + 4)%N) by congruence. subst t. split; [lia|]. f_equal. lia.
  - right. destruct (N.ltb _ _); [|discriminate]. split; [lia|].
    assert (E : t = XS (2 * N.of_nat j + tnum_n n + 4 - 16 + RESERVED_SPILLS)%N) by congruence. subst t. eexists; split; [reflexivity|exact L].
Qed.

Section Print.
Variable im : image.

(* PrintI64 on a context of any shape, whatever the contents of the temporaries mean: the printed value is the one
   in the temporary of position i, and every temporary of a position of the context, rbx, rbp, rsp and the stack from
   rsp upwards are as before *)
Theorem print_ok c s sp nl z tv i :
  frame_ok s sp -> sp mod 16 = 8 -> STACK_LIMIT + 128 <= sp ->
  (i < List.length c)%nat -> xtpos Snd i = Ok tv -> lget s sp tv = Some z ->
  exists s', exec_straight im (x_print nl tv c) s = Some s' /\
    frame_ok s' sp /\ rget s' FREE = rget s FREE /\ rget s' HEAP = rget s HEAP /\
    (forall j b n t, nth_error c j = Some b -> allowed n b -> xtpos n j = Ok t -> lget s' sp t = lget s sp t) /\
    out s' = (nl, z) :: out s /\ above_eq s s' sp.
Proof.
  intros F AL16 ROOM Li Ti Vi.
  pose proof (csri_regs_ok c) as RO. pose proof (csri_shape c) as SH.
  destruct (caller_save_registers_info c) as [fb regs] eqn:CS. cbn [snd] in RO.
  assert (FB : fb = N.max (2 * N.of_nat (List.length c) + 4) 12) by congruence. clear SH.
  assert (FB12 : (12 <= fb)%N) by (rewrite FB; lia).
  assert (FBn : (2 * N.of_nat (List.length c) + 4 <= fb)%N) by (rewrite FB; lia).
  destruct RO as [RNG NDr RSND RFST].
  (* the part common to both placements of the printed variable *)
  assert (CORE : forall s0 rs, frame_ok s0 sp -> rget s0 rs = Some z -> rs <> 0%N -> (rs < fb)%N ->
            (forall r, r <> 1%N -> rget s0 r = rget s r) -> (forall a, kget s0 a = kget s a) ->
            out s0 = out s -> heap s0 = heap s ->
            exists s', exec_straight im (save_caller_save_registers fb regs ++ [MOV (arg 0) rs] ++ [CALL (print_name nl)]
                               ++ restore_caller_save_registers fb regs) s0 = Some s' /\
              frame_ok s' sp /\ rget s' FREE = rget s FREE /\ rget s' HEAP = rget s HEAP /\
              (forall j b n t, nth_error c j = Some b -> allowed n b -> xtpos n j = Ok t -> lget s' sp t = lget s sp t) /\
              out s' = (nl, z) :: out s /\ above_eq s s' sp).
  { intros s0 rs F0 RS NZ LT RGs KG OU HE.
    destruct (print_core im fb regs s0 sp nl z rs FB12 RNG NDr F0 AL16 ROOM RS NZ LT)
      as (s' & E & SP' & RG' & CSV & KG' & OU' & HE').
    exists s'. split; [exact E|]. split; [split; [exact SP'|apply F]|].
    split; [|split; [|split; [|split; [congruence|split; [congruence|intros a Ha; rewrite KG' by exact Ha; apply KG]]]]].
    - rewrite CSV; [apply RGs; discriminate|discriminate|reflexivity|change FREE with 3%N; lia].
    - rewrite CSV; [apply RGs; discriminate|discriminate|reflexivity|change HEAP with 2%N; lia].
    - intros j b n t Hj AL Tj.
      assert (Lj : (j < List.length c)%nat) by (apply nth_error_Some; congruence).
      destruct (xtpos_shape n j t Tj) as [(J & ->)|(J & p & -> & P)]; cbn [lget].
      + assert (TN : (tnum_n n <= 1)%N) by (destruct n; cbn; lia).
        destruct (Nat.lt_ge_cases j 4) as [J4|J4].
        * (* caller-saved: in the saved list *)
          rewrite RG'; [apply RGs; lia|].
          destruct n; cbn [tnum_n].
          -- replace (4 + 2 * N.of_nat j + 0)%N with (4 + 2 * N.of_nat j)%N by lia. apply (RFST j b Hj J4).
             destruct AL as [AL|AL]; [discriminate|exact AL].
          -- replace (4 + 2 * N.of_nat j + 1)%N with (5 + 2 * N.of_nat j)%N by lia. apply (RSND j b Hj J4).
        * (* r12-r15 *)
          rewrite CSV; [apply RGs; lia|lia|apply caller_saved_high; lia|lia].
      + rewrite !sget_kget. destruct (slot_addr_facts sp p (proj2 F) P) as (_ & _ & _ & GE & _).
        rewrite KG' by exact GE. apply KG. }
  unfold x_print. rewrite CS.
  change (if nl then "println_i64" else "print_i64")%string with (print_name nl).
  destruct (xtpos_shape Snd i tv Ti) as [(J & ->)|(J & p & -> & P)]; cbn [lget tnum_n] in Vi.
  - cbn [app]. cbn [tnum_n]. apply (CORE s); auto; lia.
  - cbn [move_to_register]. rewrite exec_straight_app. cbn [exec_straight].
    rewrite (step_MOVL_slot im s sp F) by exact P. rewrite Vi.
    apply (CORE (rset s TEMP (Some z)) TEMP); auto.
    + apply frame_ok_rset; [discriminate|exact F].
    + apply rget_rset_same.
    + discriminate.
    + change TEMP with 1%N. lia.
    + intros r Hr. apply rget_rset_other. change TEMP with 1%N. congruence.
Qed.

Variable CL : Z -> ident -> list clause -> Prop.
Local Notation rel := (rel CL).

Theorem sim_print c e s sp nl v z tv :
  rel c e s sp -> lookup_int e v = Some z -> xvt c (idn v) = Ok tv ->
  exists s', exec_straight im (x_print nl tv c) s = Some s' /\
    rel c e s' sp /\ out s' = (nl, z) :: out s /\ above_eq s s' sp.
Proof.
  intros R LV TV.
  destruct (rel_operand CL c e s sp v z tv R LV TV) as (i & Li & Ti & Vi).
  destruct (print_ok c s sp nl z tv i (rel_frame R) (rel_align R) (rel_room R) Li Ti Vi)
    as (s' & E & F' & FR & _ & KEEP & O & AE).
  exists s'. split; [exact E|]. split; [exact (rel_keep CL c e s s' sp R F' FR KEEP)|auto].
Qed.
End Print.
