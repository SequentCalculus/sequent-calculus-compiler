(* C06, forward simulation for HEAP statements: the code of `x_load` (Switch, Invoke) under `hrel`.
   The last position holds an object / closure whose fields fs are represented at its pointer q.  The code
   runs to its end; afterwards the context is the old one without that position, extended by the loaded
   variables cx; the machine's heap is `load_object (nlinks n) q`, the loaded variables get the pointers
   the machine reads from its heap (`load_ptrs`), and these ARE the words the code loads. *)
From Coq Require Import List ZArith NArith String Bool Lia FMapPositive Permutation.
From SCC Require Import Proof.X86Mem Proof.X86MemFrame Proof.X86MemLoad Proof.X86MemLoadChain Proof.X86MemLoadFull
     Proof.X86StackFrame.
From SCC Require Import Base.Sexp Lang.AxSyn Sem.AxSem Sem.AxHeap Model.ParMoves Model.Backend Model.X86 Sem.X86Sem Sem.X86Wf
     Generated.Constants Proof.X86State Proof.X86Sel Proof.X86Exec Proof.X86ParMoves Proof.SubstGraph Proof.X86Subst
     Proof.X86SimRel Proof.X86SimStmt Proof.X86HeapDefs Proof.X86HeapCongr Proof.X86HBridge Proof.X86HFrame
     Proof.X86HSimRel Proof.X86HSimStmt Proof.X86HConv Proof.X86HSimStore.
From SCC Require Proof.X86MemSubst Model.Heap Proof.HeapMore Proof.HeapTrace Proof.HeapRep.
Import ListNotations.
Open Scope Z_scope.
Open Scope list_scope.

(* the three slot words of a block of a chain: fields, or the link to the next block of the chain *)
Lemma wblocks_slots w : forall k q b, In b (wblocks k w q) ->
  In (b + 16) (waddrs k w q) /\ In (b + 32) (waddrs k w q) /\
  (In (b + 48) (waddrs k w q) \/ In (w (b + 48)) (wblocks k w q)).
Proof.
  induction k as [|k IH]; intros q b Hb; cbn [wblocks waddrs app In] in *.
  - destruct Hb as [<-|[]]. auto 8.
  - destruct Hb as [<-|Hb].
    + split; [auto|]. split; [auto|]. right. right. destruct k; now left.
    + destruct (IH _ _ Hb) as (A & B & C). split; [auto|]. split; [auto|]. destruct C as [C|C]; [left|right]; auto.
Qed.

Lemma nth_error_Some_lt {X} (l : list X) i x : nth_error l i = Some x -> (i < List.length l)%nat.
Proof. intros H. apply nth_error_Some. congruence. Qed.
Lemma Forall2_nth {X Y} (P : X -> Y -> Prop) : forall l1 l2 i x y,
  Forall2 P l1 l2 -> nth_error l1 i = Some x -> nth_error l2 i = Some y -> P x y.
Proof.
  induction l1 as [|a l1 IH]; intros l2 i x y H H1 H2; [destruct i; discriminate|].
  inversion H; subst. destruct i as [|i]; cbn [nth_error] in *; [inversion H1; inversion H2; subst; assumption|eauto].
Qed.
Lemma Forall2_len {X Y} (P : X -> Y -> Prop) l1 l2 : Forall2 P l1 l2 -> List.length l1 = List.length l2.
Proof. induction 1; cbn; auto. Qed.

Lemma x_load_temps cx cE lc cl lc1 : x_load cx cE lc = Ok (cl, lc1) -> cx <> [] ->
  (2 * N.of_nat (List.length cE + List.length cx) < MAXPOS + 1)%N.
Proof.
  intros XL NE. unfold x_load in XL. destruct cx as [|b0 cr]; [congruence|]. set (tl := b0 :: cr) in *.
  destruct (x_fresh Fst cE) as [t|]; cbn [rbind] in XL; [|discriminate].
  assert (G : forall br c l, load_register br tl cE lc = Ok (c, l) -> (2 * N.of_nat (List.length cE + List.length tl) < MAXPOS + 1)%N).
  { intros br c l Hc. unfold load_register in Hc.
    destruct (load_fields (S (List.length tl)) tl cE Last Release false lc) as [[[c1 f1] l1]|] eqn:E1; cbn [rbind] in Hc; [|discriminate].
    destruct (load_fields_unfold (List.length tl) tl cE Last Release false lc c1 f1 l1 ltac:(discriminate) E1)
      as (c0 & fr0 & lc0 & lv & _ & _ & _ & Hlv & _).
    assert (Ltl : (1 <= List.length tl)%nat) by (unfold tl; cbn; lia).
    apply load_values_pos in Hlv.
    - rewrite rev_length, skipn_length, app_length, firstn_length, X86MemStoreChain.rest_len_val in Hlv. lia.
    - intros E. apply (f_equal (@List.length binding)) in E. rewrite rev_length, skipn_length, X86MemStoreChain.rest_len_val in E.
      cbn [bp_n] in E. change (N.to_nat (3 - 0)) with 3%nat in E. cbn [List.length] in E. lia. }
  destruct t as [r|pp]; [eapply G; eauto|].
  destruct (load_register TEMP tl cE lc) as [[c l]|] eqn:ELR; cbn [rbind] in XL; [|discriminate].
  eapply G; eauto.
Qed.

Section HLoad.
Variable im : image.
Variable types : list tydecl.
Variable CLO : Z -> ident -> list clause -> ctx -> Prop.
Local Notation hrel := (hrel types CLO).
Local Notation hvrep := (hvrep types CLO).
Local Notation xrep := (xrep types CLO).
Local Notation xflds := (xflds types CLO).
Local Notation xreps := (xreps types CLO).

Theorem hsim_load cE cx heE x vq q fs (e1 : env) hs s sp lc cl lc1 pc lk hl fl cl0 :
  hrel cE heE hs s sp ->
  lget s sp (mtpos (2 * N.of_nat (List.length cE))) = Some q ->
  xflds (hword s) fs q -> fs <> [] ->
  map snd e1 = fs -> env_ids e1 = ids cx ->
  Forall2 (fun b f => chi_of f = bchi b /\ ty_of f = bty b) cx fs ->
  NoDup (ids (cE ++ cx)) ->
  InvA HEAP_BASE hs (roots (heE ++ [(x, vq, q)])) hl fl cl0 -> P03 hs ->
  HeapRep.rep_flds lk (Heap.m hs) fs q ->
  Heap.frontier hs <= LIMIT ->
  x_load cx cE lc = Ok (cl, lc1) -> code_at im pc cl -> labels_at_nh im pc cl ->
  exists s', exec_to im pc s (padd pc (List.length cl)) s' /\ hframe_eq s s' sp /\
    hrel (cE ++ cx) (heE ++ attach e1 (load_ptrs hs (List.length fs) q))
         (Heap.load_object (Heap.nlinks (List.length fs)) q hs) s' sp.
Proof.
  intros R LQ XF NE E1S E1F KIN ND IA K03 RF HFr XL CA LA.
  pose proof (hrel_length R) as L0.
  pose proof (Forall2_len _ _ _ KIN) as Lcx.
  set (n := List.length fs) in *. set (k := Heap.nlinks n). set (w := hword s). set (F := Heap.frontier hs).
  assert (Hn : (0 < n)%nat) by (unfold n; destruct fs; [congruence|cbn; lia]).
  destruct (xflds_cons_inv types CLO w fs q XF NE) as (Bq & FB & PAD & XS). fold n k in FB, PAD, XS.
  set (A := waddrs k w q) in *.
  assert (LA_ : List.length A = (2 * k + 3)%nat) by apply waddrs_length.
  pose proof (nlinks_bound n Hn) as NB1. pose proof (nlinks_upper n) as NB2. fold k in NB1, NB2.
  assert (NEcx : cx <> []) by (intros ->; cbn in Lcx; lia).
  assert (FLD : forall i f, nth_error fs i = Some f -> xrep w f (w (nth (List.length A - n + i) A 0)) (w (nth (List.length A - n + i) A 0 + 8))).
  { intros i f Hf. destruct (xreps_nth types CLO w fs _ XS i f Hf) as (a & Ha & X).
    rewrite nth_error_skipn_add in Ha. rewrite (nth_error_nth _ _ 0 Ha). exact X. }
  assert (SLOT : forall a, In a A -> w a = 0 \/ is_blk (w a)).
  { intros a Ha. destruct (In_nth A a 0 Ha) as (j & Hj & <-).
    destruct (Nat.lt_ge_cases j (List.length A - n)) as [Lj|Lj]; [left; now apply PAD|].
    destruct (nth_error fs (j - (List.length A - n))) as [f|] eqn:Hf; [|apply nth_error_None in Hf; fold n in Hf; lia].
    pose proof (FLD _ f Hf) as X. replace (List.length A - n + (j - (List.length A - n)))%nat with j in X by lia.
    eapply xrep_ptr; eauto. }
  (* hypotheses of the refinement theorem *)
  assert (OKW : lf_share_ok (S (List.length cx)) w cx Last q).
  { apply lf_share_ok_words; [exact NEcx| | | |]; cbv zeta; rewrite Lcx; fold n k A; auto.
    intros i b Hb KE. destruct (nth_error fs i) as [f|] eqn:Hf; [|apply nth_error_None in Hf; apply nth_error_Some_lt in Hb; fold n in Hf; lia].
    destruct (Forall2_nth _ _ _ _ _ _ KIN Hb Hf) as [Kc _]. pose proof (FLD i f Hf) as X.
    destruct f; cbn in Kc; try congruence. inversion X; subst. congruence. }
  pose proof (hr_heq R) as HQ. fold F in HQ.
  assert (BND : forall y, is_blk y -> 0 <= hword s y <= HB).
  { intros y Hy. destruct (heq_abs_ps F s hs y HQ Hy) as [_ E]. rewrite <- E.
    eapply hdr_bounds_x; [exact IA|apply P03_P3; exact K03|exact HFr| |exact Hy].
    pose proof (roots_length (heE ++ [(x, vq, q)])) as RL. rewrite app_length in RL. cbn [List.length] in RL.
    pose proof (hrel_small types CLO _ _ _ _ _ R). lia. }
  pose proof (x_load_temps cx cE lc cl lc1 XL NEcx) as TMP.
  assert (ROOM : forall y, is_blk y -> min_int + 1 <= hword s y /\ hword s y + Z.of_nat (List.length cx) <= max_int).
  { intros y Hy. specialize (BND y Hy). unfold MAXPOS in TMP. unfold HB, min_int, max_int, two63 in *. lia. }
  assert (LAm : X86Mem.labels_at im pc cl).
  { apply X86MemSubst.labels_at_mem. apply labels_at_of_nh; [eapply nh_x_load; eauto|exact LA]. }
  destruct (x86_load_frame im pc cx cE lc cl lc1 s sp q (Heap.heap hs) F XL NEcx (X86MemSubst.code_at_mem _ _ _ CA) LAm (hr_frame R) LQ Bq (hr_heapreg R) OKW ROOM)
    as (s' & ST & EQ & LD & KEEP & OUT & FR' & NBS & (h' & RH') & RFR & SF).
  rewrite (lf_addrs_waddrs (hword s) cx q NEcx) in LD. rewrite Lcx in LD, EQ. fold n k w A in LD, EQ.
  (* the abstraction afterwards *)
  assert (HQL : heq (Heap.load_object k q (abs_heap F s)) (Heap.load_object k q hs)).
  { apply heq_load_object; [exact HQ|apply P03_P3; exact K03| |].
    - cbn [abs_heap Heap.m]. rewrite obj_blocks_abs. exact FB.
    - cbn [abs_heap Heap.m]. rewrite obj_blocks_abs. intros b Hb. cbn [abs_mem Heap.ps].
      destruct (wblocks_slots w k q b Hb) as (S1 & S2 & S3). fold A in S1, S2, S3.
      repeat (apply Forall_cons); [apply SLOT; exact S1|apply SLOT; exact S2| |apply Forall_nil].
      destruct S3 as [S3|S3]; [apply SLOT; exact S3|right]. rewrite Forall_forall in FB. apply FB. exact S3. }
  set (hs' := Heap.load_object k q hs) in *.
  assert (HQ1 : heq (abs_heap F s') hs') by (eapply heq_eqB; [exact EQ|exact HQL]).
  assert (EF' : Heap.frontier hs' = F) by (destruct HQ1 as (_ & _ & X & _); symmetry; exact X).
  assert (EH : h' = Heap.heap hs').
  { destruct HQ1 as (X & _). cbn [abs_heap Heap.heap] in X. unfold reg_or0 in X. rewrite RH' in X. exact X. }
  assert (EFREE : Heap.free hs' = Heap.free hs).
  { destruct HQ1 as (_ & X & _). cbn [abs_heap Heap.free] in X. unfold reg_or0 in X. rewrite RFR, (hr_freereg R) in X. congruence. }
  assert (EXT : forall a, ~ is_blk a -> hword s' a = hword s a) by exact NBS.
  (* the pointers of the machine are the loaded words *)
  assert (LP : load_ptrs hs n q = map w (skipn (List.length A - n) A)).
  { unfold n, w, A, k. apply (load_ptrs_words F s hs lk fs q HQ K03 NE RF). exact FB. }
  exists s'. split; [|split].
  - rewrite <- X86MemSubst.pnth_is_padd. apply X86MemSubst.steps_exec. exact ST.
  - split; [exact OUT|exact SF].
  - destruct R as [F0 Al Ro Hr Fr HQ0 Ids NDc Vals]. split; auto.
    + rewrite RH'. now rewrite EH.
    + rewrite RFR, Fr. now rewrite EFREE.
    + rewrite EF'. exact HQ1.
    + unfold env_ids, ids, erase_env in *. rewrite !map_app. f_equal; [exact Ids|].
      fold (erase_env (attach e1 (load_ptrs hs n q))). rewrite attach_erase. exact E1F.
    + intros i y v p Hi. destruct (Nat.lt_ge_cases i (List.length heE)) as [Li|Li].
      * rewrite nth_error_app1 in Hi by exact Li.
        destruct (Vals i y v p Hi) as (b & Hb & V).
        exists b. split; [rewrite nth_error_app1 by lia; exact Hb|].
        destruct V as [b z p t A0 B T Lg|b v p a t1 t2 A0 K1 K2 T1 T2 Lg1 Lg2 X].
        -- eapply hv_int; eauto. apply xtpos_mtpos in T as [-> _]. rewrite KEEP; [exact Lg|]. cbn [tnum_n]. lia.
        -- pose proof T1 as T1'. pose proof T2 as T2'.
           apply xtpos_mtpos in T1' as [-> _]. apply xtpos_mtpos in T2' as [-> _].
           eapply (hv_ptr types CLO s' sp i b v p a); eauto.
           ++ rewrite KEEP; [exact Lg1|]. cbn [tnum_n]. lia.
           ++ rewrite KEEP; [exact Lg2|]. cbn [tnum_n]. lia.
           ++ eapply xrep_ext; [exact EXT|exact X].
      * rewrite nth_error_app2 in Hi by exact Li. set (j := (i - List.length heE)%nat) in *.
        destruct (attach_nth _ _ _ _ _ _ Hi) as [He1 Ep].
        assert (Hf : nth_error fs j = Some v).
        { rewrite <- E1S. rewrite nth_error_map, He1. reflexivity. }
        assert (Lj : (j < n)%nat) by (apply nth_error_Some_lt in Hf; exact Hf).
        destruct (nth_error cx j) as [b|] eqn:Hb; [|apply nth_error_None in Hb; lia].
        exists b. split; [rewrite nth_error_app2 by lia; replace (i - List.length cE)%nat with j by lia; exact Hb|].
        destruct (Forall2_nth _ _ _ _ _ _ KIN Hb Hf) as [Kc Kt].
        destruct (LD j b Hb) as [LS LF]. cbv zeta in LS, LF.
        replace (List.length cE + j)%nat with i in LS, LF by lia.
        set (a := nth (List.length A - n + j) A 0) in *.
        pose proof (FLD j v Hf) as X. fold a in X.
        assert (Ep' : p = w a).
        { rewrite Ep, LP. rewrite (nth_indep _ 0 (w 0)) by (rewrite map_length, skipn_length; lia).
          rewrite map_nth. f_equal. unfold a.
          assert (Hs : nth_error (skipn (List.length A - n) A) j = nth_error A (List.length A - n + j)) by apply nth_error_skipn_add.
          destruct (nth_error A (List.length A - n + j)) as [a0|] eqn:Ha; [|apply nth_error_None in Ha; lia].
          rewrite (nth_error_nth _ _ 0 Hs), (nth_error_nth _ _ 0 Ha). reflexivity. }
        assert (K1 : (2 * N.of_nat i + 1 < MAXPOS)%N) by (rewrite Lcx in TMP; unfold MAXPOS in *; lia).
        assert (K0 : (2 * N.of_nat i + 0 < MAXPOS)%N) by lia.
        destruct (bchi b) eqn:Kb.
        -- rewrite Ep'. eapply (hv_ptr types CLO s' sp i b v (w a) (w (a + 8))); try (rewrite ?Kb; congruence).
           ++ apply (mtpos_xtpos Fst i). exact K0.
           ++ apply (mtpos_xtpos Snd i). exact K1.
           ++ cbn [tnum_n]. rewrite N.add_0_r. apply LF. congruence.
           ++ exact LS.
           ++ eapply xrep_ext; [exact EXT|exact X].
        -- rewrite Ep'. eapply (hv_ptr types CLO s' sp i b v (w a) (w (a + 8))); try (rewrite ?Kb; congruence).
           ++ apply (mtpos_xtpos Fst i). exact K0.
           ++ apply (mtpos_xtpos Snd i). exact K1.
           ++ cbn [tnum_n]. rewrite N.add_0_r. apply LF. congruence.
           ++ exact LS.
           ++ eapply xrep_ext; [exact EXT|exact X].
        -- destruct v as [z| |]; cbn in Kc, Kt; try congruence. inversion X; subst.
           eapply hv_int; [exact Kb|congruence|apply (mtpos_xtpos Snd i); exact K1|].
           cbn [tnum_n]. rewrite LS. congruence.
Qed.
End HLoad.
