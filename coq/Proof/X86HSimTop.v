(* C06, forward simulation for ALL statement forms: the program-level theorem.
   Every run of the linear AxCut machine that does not run out of fuel is reproduced by the x86-64 code on the
   ISA model, with the same observation, for every linearly checked program whose entry takes integers.
   Besides the checks of C14 on the output (`asm_wf`, `code_small`) and the plain names, two hypotheses:
     ann_check_prog p   the annotation of every Create is the end of its context (Proof/X86HAnn.v; holds for
                        every output of the linearization pass, Proof/X86HAnnLin.v);
     heap_fits p args   the run stays inside the 32 MiB heap region of the ISA model (the linear machine
                        has no memory bound): in every configuration the instrumented machine reaches, the
                        allocation frontier leaves room for the reserved block. *)
From Coq Require Import List ZArith NArith String Bool Lia FMapPositive Permutation.
From SCC Require Import Proof.X86Mem Proof.X86MemFrame Proof.X86StackFrame.
From SCC Require Import Base.Sexp Lang.AxSyn Sem.AxSem Sem.AxHeap Model.ParMoves Model.Backend Model.X86 Sem.X86Sem Sem.X86Wf
     Model.Linearize Model.LinCheck Generated.Constants Proof.LinBasics Proof.LinTyping Proof.LinMachine Proof.X86State Proof.X86Sel Proof.X86Exec Proof.X86ParMoves
     Proof.SubstGraph Proof.X86Subst Proof.X86SimRel Proof.X86SimStmt Proof.X86SimPrint Proof.X86SimAddr Proof.X86SimClo Proof.X86SimProg Proof.X86SimProgC Proof.X86SimTop Proof.X86SimTopC
     Proof.X86HeapDefs Proof.X86HeapCongr Proof.X86HBridge Proof.X86HFrame
     Proof.X86HSimRel Proof.X86HSimStmt Proof.X86HConv Proof.X86HSimStore Proof.X86HSimLoad Proof.X86HSimSubst Proof.X86HLayout
     Proof.X86HSimHeapA Proof.X86HAnn Proof.X86HSimHeapB Proof.X86HSimHeapC Proof.X86HSimProgA Proof.X86HSimProg.
From SCC Require Model.Heap Proof.HeapMore Proof.HeapTrace Proof.HeapRep Proof.AxHeapErase Proof.AxHeapTyping Proof.AxHeapSafe.
Import ListNotations.
Open Scope Z_scope.
Open Scope list_scope.

Definition heap_fits (p : prog) (args : list Z) : Prop :=
  forall tr c, hreach HEAP_BASE p args tr c -> Heap.frontier (hc_heap c) + 64 <= HEAP_BASE + HEAP_SIZE.

Lemma all_ext_ctx_int c : AxHeapTyping.all_ext c = true -> ctx_int c = true.
Proof.
  unfold AxHeapTyping.all_ext, ctx_int. rewrite !forallb_forall. intros H b Hb. specialize (H b Hb).
  apply andb_true_iff in H as [K T]. apply chi_eqb_eq in K. apply ty_eqb_eq in T. unfold is_int_binding. now rewrite K, T.
Qed.

Theorem x86_codegen_simulates p lc cs n lc' args fuel o :
  lin_check_prog p = true -> ann_check_prog p = true -> AxHeapTyping.entry_ext p = true ->
  plain_names p = true -> plain_types p = true ->
  x86_compile p lc = Ok (cs, n, lc') -> asm_wf cs = None -> code_small cs = true ->
  List.length args = n -> heap_fits p args ->
  run_linear fuel p args = o -> snd o <> OOutOfFuel ->
  exists outer inner, fst (run_x86 outer inner cs args) = o.
Proof.
  intros LIN ANN EI PL PLTY XC WF SM NARGS FITS RUN G.
  assert (EI' : entry_int p = true).
  { unfold entry_int. unfold AxHeapTyping.entry_ext in EI. destruct (pdefs p); [reflexivity|]. now apply all_ext_ctx_int. }
  destruct (x86_program_entry p lc cs n lc' args PL EI' LIN XC WF NARGS)
    as (d0 & rest & e0 & c0 & lc0 & pc0 & s1 & PD & EE & DEFS & CLEAN & C0 & CA & LA & R0 & OK1 & O1 & RH & RF & HE & RUNX).
  apply RUNX. set (im := mk_image cs) in *.
  assert (ENC : forall pc c, PM.find pc (code im) = Some c -> instr_wf c = true).
  { intros pc c Hc. apply mk_image_code_in in Hc. apply (asm_wf_enc cs WF c Hc). }
  assert (PLT : forall d, In d (ptypes p) -> is_hash_label (label_of_type_name (show_ident (tname d))) = false).
  { unfold plain_types in PLTY. rewrite forallb_forall in PLTY. intros d Hd. specialize (PLTY d Hd).
    destruct (is_hash_label _); [discriminate|reflexivity]. }
  (* the run of the instrumented machine *)
  assert (ERUN : o = fst (fst (hexec fuel p (mkhc (attach e0 []) (Heap.init HEAP_BASE) (dbody d0)) [] []))).
  { rewrite AxHeapErase.hexec_erase. cbn [hc_env hc_stmt]. rewrite AxHeapErase.erase_attach.
    unfold run_linear in RUN. rewrite PD, EE in RUN. congruence. }
  assert (D0 : In d0 (pdefs p)) by (rewrite PD; now left).
  assert (HI0 : hinv p (attach e0 []) (Heap.init HEAP_BASE) (dbody d0)).
  { split.
    - apply (AxHeapSafe.hinit_inv HEAP_BASE d0 e0 args); [unfold HEAP_BASE; lia|exact EE].
    - apply (AxHeapTyping.hinit_wt HEAP_BASE p d0 rest e0 args LIN EI PD EE).
    - apply P03_init.
    - intros tr c' HSs. apply (FITS tr c'). exists d0, rest, e0. repeat split; auto. }
  rewrite ERUN.
  refine (hsim_exec im p sp0 (mk_image_ok cs) (mk_image_back cs) (mk_image_small cs SM) ENC PLT DEFS CLEAN LIN ANN
            fuel _ (dctx d0) _ _ [] [] s1 _ c0 lc lc0
            (proj1 (forallb_forall _ _) LIN d0 D0) (proj1 (forallb_forall _ _) ANN d0 D0) C0 CA LA
            (hentry_rel _ _ _ _ _ (R0 _) RH RF HE) _ HI0 OK1 O1 _).
  - rewrite attach_names. exact (bind_ids _ _ _ EE).
  - unfold not_oof. rewrite <- ERUN. exact G.
Qed.
Print Assumptions x86_codegen_simulates.
