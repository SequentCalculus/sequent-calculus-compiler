(* `TypingContext::freshen`: same length, same kinds/types/names position by position, first
   occurrences kept; the resulting ids are pairwise distinct, avoid `clashes`, and every new id
   lies in (max_id, max_id']. *)
From Coq Require Import String List ZArith NArith Bool Lia Permutation.
From SCC Require Import Base.Sexp Lang.AxSyn Model.Linearize Model.LinCheck Proof.LinBasics.
Import ListNotations.
Open Scope list_scope.
Open Scope N_scope.

Definition same_shape (a b : ctx) : Prop :=
  Forall2 (fun x y => bchi x = bchi y /\ bty x = bty y /\ fst (bvar x) = fst (bvar y)) a b.

Lemma same_shape_kt : forall a b, same_shape a b -> same_kt a b.
Proof. intros a b H; induction H; constructor; auto. tauto. Qed.
Lemma same_shape_length : forall a b, same_shape a b -> length a = length b.
Proof. intros a b H; induction H; simpl; auto. Qed.

Theorem freshen_spec : forall c cl m c' m',
  freshen c cl m = (c', m') ->
  (forall x, In x cl -> x <= m) -> (forall x, In x (ids c) -> x <= m) ->
  m <= m' /\ same_shape c c' /\ NoDup (ids c') /\
  (forall x, In x (ids c') -> ~ In x cl) /\
  (forall x, In x (ids c') -> In x (ids c) \/ (m < x /\ x <= m')).
Proof.
  induction c as [|b r IH]; intros cl m c' m' H Hcl Hc; simpl in *.
  - inversion H; subst. repeat split; try constructor; simpl; try tauto; lia.
  - destruct (mem (idn (bvar b)) cl) eqn:M.
    + destruct (freshen r cl (m + 1)) as [r' m1] eqn:E. inversion H; subst; clear H.
      apply IH in E.
      2:{ intros x Hx. apply Hcl in Hx. lia. }
      2:{ intros x Hx. specialize (Hc x (or_intror Hx)). lia. }
      destruct E as [E1 [E2 [E3 [E4 E5]]]].
      split; [lia|]. split; [constructor; auto|]. simpl.
      split.
      * constructor; auto. intros Hin. apply E5 in Hin. destruct Hin as [Hin|Hin]; [|lia].
        specialize (Hc _ (or_intror Hin)). lia.
      * split.
        -- intros x [<-|Hx]; auto. intros Hin. apply Hcl in Hin. lia.
        -- intros x [<-|Hx]; [right; lia|]. apply E5 in Hx. destruct Hx; [auto|right; lia].
    + destruct (freshen r (idn (bvar b) :: cl) m) as [r' m1] eqn:E. inversion H; subst; clear H.
      apply mem_false in M.
      apply IH in E.
      2:{ intros x [<-|Hx]; auto. }
      2:{ intros x Hx. auto. }
      destruct E as [E1 [E2 [E3 [E4 E5]]]].
      split; auto. split; [constructor; auto|]. simpl.
      split.
      * constructor; auto. intros Hin. apply E4 in Hin. simpl in Hin. tauto.
      * split.
        -- intros x [<-|Hx]; auto. intros Hin. apply E4 in Hx. simpl in Hx. tauto.
        -- intros x [<-|Hx]; auto. apply E5 in Hx. tauto.
Qed.

Theorem freshen_nodup : forall c cl m c' m',
  freshen c cl m = (c', m') ->
  (forall x, In x cl -> x <= m) -> (forall x, In x (ids c) -> x <= m) ->
  NoDup (ids c') /\ (forall x, In x (ids c') -> ~ In x cl).
Proof. intros c cl m c' m' H H1 H2. destruct (freshen_spec _ _ _ _ _ H H1 H2); tauto. Qed.

Theorem freshen_positions : forall c cl m c' m',
  freshen c cl m = (c', m') ->
  same_shape c c' /\
  (forall i b, nth_error c i = Some b -> ~ In (idn (bvar b)) cl ->
               ~ In (idn (bvar b)) (ids (firstn i c)) -> nth_error c' i = Some b).
Proof.
  induction c as [|b r IH]; intros cl m c' m' H; simpl in *.
  - inversion H; subst. split; [constructor|]. intros [|i] b0 Hn; discriminate.
  - destruct (mem (idn (bvar b)) cl) eqn:M.
    + destruct (freshen r cl (m + 1)) as [r' m1] eqn:E. inversion H; subst; clear H.
      apply IH in E. destruct E as [E1 E2]. split; [constructor; auto|].
      intros [|i] b0 Hn Hcl Hpre; simpl in *.
      * inversion Hn; subst. apply mem_In in M. tauto.
      * apply E2; auto.
    + destruct (freshen r (idn (bvar b) :: cl) m) as [r' m1] eqn:E. inversion H; subst; clear H.
      apply IH in E. destruct E as [E1 E2]. split; [constructor; auto|].
      intros [|i] b0 Hn Hcl Hpre; simpl in *; auto.
      apply E2; auto. simpl. intros [Heq|Hin]; auto.
Qed.

Lemma freshen_bound : forall c cl m c' m',
  freshen c cl m = (c', m') ->
  (forall x, In x cl -> x <= m) -> (forall x, In x (ids c) -> x <= m) ->
  forall x, In x (ids c') -> x <= m'.
Proof.
  intros c cl m c' m' H H1 H2 x Hx.
  destruct (freshen_spec _ _ _ _ _ H H1 H2) as [E1 [E2 [E3 [E4 E5]]]].
  apply E5 in Hx. destruct Hx as [Hx|Hx]; [|lia]. apply H2 in Hx. lia.
Qed.
