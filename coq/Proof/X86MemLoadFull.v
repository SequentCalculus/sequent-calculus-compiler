(* `x_load` with its heap frame, and the addresses of the loaded fields by `waddrs`.
     x86_load_full        projection of x86_load_frame (Proof/X86MemLoadChain.v): without the stack frame;
     lf_addrs_waddrs      the slot addresses `lf_addrs` of the whole object (walk of load_fields, last block
                          peeled first) are `waddrs (nlinks n)` (Proof/X86HeapDefs.v, head block first);
     lf_share_ok_words    `lf_share_ok` from a description of the words along waddrs / wblocks. *)
From Coq Require Import List ZArith NArith String Bool Lia FMapPositive.
From SCC Require Import Base.Sexp Lang.AxSyn Sem.AxSem Model.Backend Model.X86 Sem.X86Sem Generated.Constants
  Proof.X86State Proof.X86Sel Proof.X86Mem Proof.X86MemFrame Proof.X86MemStore Proof.X86MemLoad Proof.X86MemStoreChain
  Proof.X86MemLoadChain Proof.X86HeapDefs.
From SCC Require Model.Heap.
Import ListNotations.
Open Scope list_scope.
Open Scope Z_scope.

(* the chain read head block first (waddrs, wblocks) and last block first (lf_addrs, lf_share_ok) *)

(* the slot addresses of the first j blocks of a chain, each of them followed by another block *)
Fixpoint waddrs2 (j : nat) (w : Z -> Z) (p : Z) : list Z :=
  match j with O => [] | S j' => waddrs2 j' w p ++ blk_addrs (nthlink w j' p) 2 end.

Lemma waddrs2_length w p : forall j, List.length (waddrs2 j w p) = (2 * j)%nat.
Proof. induction j as [|j IH]; [reflexivity|]. cbn [waddrs2]. rewrite app_length, IH. cbn [blk_addrs N.eqb Pos.eqb List.length]. lia. Qed.
Lemma waddrs2_shift w : forall j p, waddrs2 (S j) w p = [p + 16; p + 32] ++ waddrs2 j w (w (p + 48)).
Proof.
  induction j as [|j IH]; intros p; [reflexivity|].
  change (waddrs2 (S (S j)) w p) with (waddrs2 (S j) w p ++ blk_addrs (nthlink w (S j) p) 2).
  rewrite IH, nthlink_shift, <- app_assoc. reflexivity.
Qed.
Lemma waddrs_snoc w : forall k p, waddrs k w p = waddrs2 k w p ++ blk_addrs (nthlink w k p) 3.
Proof.
  induction k as [|k IH]; intros p; [reflexivity|].
  cbn [waddrs]. rewrite IH, waddrs2_shift, nthlink_shift, <- app_assoc. reflexivity.
Qed.
Lemma wblocks_nthlink w : forall k p j, (j <= k)%nat -> Forall is_blk (wblocks k w p) -> is_blk (nthlink w j p).
Proof.
  induction k as [|k IH]; intros p j Hj H; cbn [wblocks] in H; inversion H as [|x l Hx Hl]; subst.
  - replace j with 0%nat by lia. exact Hx.
  - destruct j as [|j]; [exact Hx|]. rewrite nthlink_shift. apply IH; [lia|exact Hl].
Qed.

Lemma nbo_bounds n : (n <= 2 * nbo n <= n + 1)%nat.
Proof.
  unfold nbo. pose proof (Nat.div_mod (n + 1) 2 ltac:(lia)) as E.
  pose proof (Nat.mod_upper_bound (n + 1) 2 ltac:(lia)) as B. lia.
Qed.

Lemma lf_addrs_nil w p bp : forall fuel, lf_addrs fuel w [] bp p = [].
Proof. destruct fuel; reflexivity. Qed.
Lemma lf_share_ok_nil w p bp : forall fuel, lf_share_ok fuel w [] bp p.
Proof. destruct fuel; exact I. Qed.

(* the walk of a call of load_fields: nbo (m - cap) two-field blocks, then the block of this call *)
Lemma lf_addrs_gen w p : forall fuel to_load bp, (List.length to_load < fuel)%nat -> to_load <> [] ->
  let cap := (3 - bp_n bp)%N in
  let jj := nbo (List.length to_load - N.to_nat cap) in
  lf_addrs fuel w to_load bp p = waddrs2 jj w p ++ blk_addrs (nthlink w jj p) cap.
Proof.
  induction fuel as [|f IH]; intros tl bp Hf Hne cap jj; [lia|]. cbn [lf_addrs].
  destruct tl as [|x r]; [contradiction|]. set (tl := x :: r) in *. fold cap.
  set (m := List.length tl) in *.
  assert (Hm : (1 <= m)%nat) by (unfold m, tl; cbn; lia).
  assert (Hcap : (cap = 3 \/ cap = 2)%N) by (unfold cap; destruct bp; cbn; auto).
  assert (Lr : List.length (firstn (rest_len m cap) tl) = (m - N.to_nat cap)%nat).
  { rewrite firstn_length, rest_len_val. fold m. lia. }
  rewrite lf_ptr_nthlink by (rewrite Lr; lia). rewrite Lr. fold jj. f_equal.
  destruct (firstn (rest_len m cap) tl) as [|y r'] eqn:Efn.
  - rewrite lf_addrs_nil. cbn [List.length] in Lr. unfold jj. rewrite <- Lr. reflexivity.
  - rewrite IH by (rewrite ?Lr; try discriminate; lia). rewrite Lr. cbn zeta.
    change (3 - bp_n Other)%N with 2%N. change (N.to_nat 2) with 2%nat.
    assert (Hm' : (1 <= m - N.to_nat cap)%nat) by (rewrite <- Lr; cbn; lia).
    unfold jj. rewrite (nbo_step _ Hm'). reflexivity.
Qed.

Lemma nlinks_lt_3 n : Heap.nlinks n = nbo (n - N.to_nat 3).
Proof. apply nlinks_nbo. Qed.

Lemma lf_addrs_waddrs w to_load p : to_load <> [] ->
  lf_addrs (S (List.length to_load)) w to_load Last p = waddrs (Heap.nlinks (List.length to_load)) w p.
Proof.
  intros Hne. rewrite (lf_addrs_gen w p (S (List.length to_load)) to_load Last ltac:(lia) Hne).
  change (3 - bp_n Last)%N with 3%N. rewrite <- nlinks_lt_3. symmetry. apply waddrs_snoc.
Qed.

(* lf_share_ok of a call of load_fields from the words along its addresses *)
Lemma lf_share_ok_gen w p : forall fuel to_load bp, (List.length to_load < fuel)%nat -> to_load <> [] ->
  let cap := (3 - bp_n bp)%N in
  let m := List.length to_load in
  let jj := nbo (m - N.to_nat cap) in
  let A := waddrs2 jj w p ++ blk_addrs (nthlink w jj p) cap in
  (forall i, (i <= jj)%nat -> is_blk (nthlink w i p)) ->
  (forall a, In a A -> w a = 0 \/ is_blk (w a)) ->
  (forall j, (j < List.length A - m)%nat -> w (nth j A 0) = 0) ->
  (forall i b, nth_error to_load i = Some b -> bchi b = Ext -> w (nth (List.length A - m + i) A 0) = 0) ->
  lf_share_ok fuel w to_load bp p.
Proof.
  induction fuel as [|f IH]; intros tl bp Hf Hne cap m jj A Hblk Hk Hz He; [lia|]. cbn [lf_share_ok].
  destruct tl as [|x r]; [contradiction|]. set (tl := x :: r) in *. fold cap. fold m.
  assert (Hm : (1 <= m)%nat) by (unfold m, tl; cbn; lia).
  assert (Hcap : (cap = 3 \/ cap = 2)%N) by (unfold cap; destruct bp; cbn; auto).
  set (c := N.to_nat cap) in *.
  assert (Ec : c = N.to_nat cap) by reflexivity.
  assert (Hc : (c = 3 \/ c = 2)%nat) by lia.
  set (rl := rest_len m cap).
  assert (Hrl : rl = (m - c)%nat) by apply rest_len_val.
  assert (Lr : List.length (firstn rl tl) = (m - c)%nat) by (rewrite firstn_length; fold m; lia).
  assert (Ln : List.length (skipn rl tl) = (m - rl)%nat) by (rewrite skipn_length; reflexivity).
  rewrite lf_ptr_nthlink by (rewrite Lr; lia). rewrite Lr. fold jj. rewrite Ln.
  set (q := nthlink w jj p) in *.
  pose proof (nbo_bounds (m - c)) as NB. fold jj in NB.
  assert (LA2 : List.length (waddrs2 jj w p) = (2 * jj)%nat) by apply waddrs2_length.
  assert (LB : List.length (blk_addrs q cap) = c) by (now apply blk_addrs_length).
  assert (LA : List.length A = (2 * jj + c)%nat) by (unfold A; rewrite app_length, LA2, LB; reflexivity).
  assert (Hnth : forall j, (j < cap)%N -> q + field_offset Fst j = nth (2 * jj + N.to_nat j) A 0).
  { intros j Hj. unfold A. rewrite app_nth2 by lia. rewrite LA2.
    replace (2 * jj + N.to_nat j - 2 * jj)%nat with (N.to_nat j) by lia. symmetry. now apply blk_addrs_nth. }
  split; [|split; [|split; [|split]]].
  - (* the blocks before *)
    destruct (firstn rl tl) as [|y r'] eqn:Efn; [apply lf_share_ok_nil|]. rewrite <- Efn in *.
    assert (Hne' : firstn rl tl <> []) by (rewrite Efn; discriminate).
    assert (Hm' : (1 <= m - c)%nat) by (rewrite <- Lr, Efn; cbn; lia).
    pose proof (IH (firstn rl tl) Other ltac:(rewrite Lr; lia) Hne') as IH'. cbv zeta in IH'.
    rewrite Lr in IH'. change (3 - bp_n Other)%N with 2%N in IH'. change (N.to_nat 2) with 2%nat in IH'.
    assert (Ejj : jj = S (nbo (m - c - 2))) by (unfold jj; now apply nbo_step).
    set (j' := nbo (m - c - 2)) in *.
    change (waddrs2 j' w p ++ blk_addrs (nthlink w j' p) 2) with (waddrs2 (S j') w p) in IH'. rewrite <- Ejj in IH'.
    rewrite LA2 in IH'.
    apply IH'.
    + intros i Hi. apply Hblk. lia.
    + intros a Ha. apply Hk. unfold A. apply in_or_app. now left.
    + intros j Hj. specialize (Hz j ltac:(lia)). unfold A in Hz. rewrite app_nth1 in Hz by lia. exact Hz.
    + intros i b Hi Hx.
      assert (Hi' : (i < m - c)%nat) by (rewrite <- Lr; apply nth_error_Some; congruence).
      assert (Hi2 : nth_error tl i = Some b).
      { rewrite <- (firstn_skipn rl tl). rewrite nth_error_app1 by (rewrite Lr; exact Hi'). exact Hi. }
      specialize (He i b Hi2 Hx). rewrite LA in He. unfold A in He. rewrite app_nth1 in He by lia.
      replace (2 * jj - (m - c) + i)%nat with (2 * jj + c - m + i)%nat by lia.
      exact He.
  - apply Hblk. lia.
  - intros j Hj. rewrite (Hnth j Hj). apply Hk. apply nth_In. lia.
  - intros j Hj. rewrite (Hnth j ltac:(lia)). apply Hz. lia.
  - intros i b Hi Hx.
    assert (Hi' : (i < m - rl)%nat) by (rewrite <- Ln; apply nth_error_Some; congruence).
    assert (Hi2 : nth_error tl (rl + i) = Some b).
    { rewrite <- (firstn_skipn rl tl). rewrite nth_error_app2 by (rewrite Lr; lia). rewrite Lr.
      replace (rl + i - (m - c))%nat with i by lia. exact Hi. }
    rewrite Hnth by lia. specialize (He _ b Hi2 Hx).
    replace (2 * jj + N.to_nat (cap - N.of_nat (m - rl) + N.of_nat i))%nat with (List.length A - m + (rl + i))%nat by lia.
    exact He.
Qed.

Lemma lf_share_ok_words w to_load p : to_load <> [] ->
  let n := List.length to_load in let k := Heap.nlinks n in let A := waddrs k w p in
  Forall is_blk (wblocks k w p) ->
  (forall a, In a A -> w a = 0 \/ is_blk (w a)) ->
  (forall j, (j < List.length A - n)%nat -> w (nth j A 0) = 0) ->
  (forall i b, nth_error to_load i = Some b -> bchi b = AxSyn.Ext -> w (nth (List.length A - n + i) A 0) = 0) ->
  lf_share_ok (S n) w to_load Last p.
Proof.
  intros Hne n k A Hb Hk Hz He.
  pose proof (lf_share_ok_gen w p (S n) to_load Last ltac:(unfold n; lia) Hne) as G. cbv zeta in G.
  change (3 - bp_n Last)%N with 3%N in G. rewrite <- nlinks_lt_3 in G. fold n k in G.
  rewrite <- waddrs_snoc in G. fold A in G.
  apply G; auto. intros i Hi. now apply (wblocks_nthlink w k p i Hi).
Qed.

Section LoadFull.
Variable im : image.

Theorem x86_load_full pos to_load existing lc cs lc' s sp p h F :
  x_load to_load existing lc = Ok (cs, lc') -> to_load <> [] ->
  code_at im pos cs -> labels_at im pos cs -> frame_ok s sp ->
  lget s sp (tpos (2 * N.of_nat (List.length existing))) = Some p -> is_blk p -> rget s HEAP = Some h ->
  lf_share_ok (S (List.length to_load)) (hword s) to_load Last p ->
  (forall x, is_blk x -> min_int + 1 <= hword s x /\ hword s x + Z.of_nat (List.length to_load) <= max_int) ->
  exists s', steps im pos s (pnth pos (List.length cs)) s' /\
    st_eqB (abs_heap F s') (Heap.load_object (Heap.nlinks (List.length to_load)) p (abs_heap F s)) /\
    (forall i b, nth_error to_load i = Some b ->
       let A := lf_addrs (S (List.length to_load)) (hword s) to_load Last p in
       let a := nth (List.length A - List.length to_load + i) A 0 in
       lget s' sp (tpos (2 * N.of_nat (List.length existing + i) + 1)) = Some (hword s (a + 8)) /\
       (bchi b <> AxSyn.Ext -> lget s' sp (tpos (2 * N.of_nat (List.length existing + i))) = Some (hword s a))) /\
    (forall k, (k < 2 * N.of_nat (List.length existing))%N -> lget s' sp (tpos k) = lget s sp (tpos k)) /\
    out s' = out s /\ frame_ok s' sp /\
    nonblk_same s s' /\ (exists h', rget s' HEAP = Some h') /\ rget s' FREE = rget s FREE.
Proof.
  intros Hx Hne HC HL FR P Hb Hh OK Room.
  destruct (x86_load_frame im pos to_load existing lc cs lc' s sp p h F Hx Hne HC HL FR P Hb Hh OK Room)
    as (s' & ST & EQ & V & O & Out & FR' & NB & HH & FF & _).
  exists s'. auto 10.
Qed.
End LoadFull.

Print Assumptions x86_load_full.
Print Assumptions lf_addrs_waddrs.
Print Assumptions lf_share_ok_words.
