(* `Prog::focus` (uniquify, then focus every definition) preserves typing (C12):
     wt_core c -> pre_check c -> xtor_tys_ok c -> names_le c -> focus_prog c = Ok f ->
     wt_fs f /\ unique_binders f /\ ids_bounded f /\ gub f.
   Typing: Proof/UqTyTop.v (uniquify) + Proof/FocusTy.v (focus); the binder conditions come from C03's
   specifications of the two passes (Proof/FocusTheorems.v: the binder ids of every output definition
   are pairwise distinct - globally, not only along paths - and all ids <= the new max_id). *)
From Coq Require Import List ZArith NArith String Bool Lia.
From SCC Require Import Base.Sexp Lang.SynUtil Lang.CoreSyn Sem.FsCheck Sem.CoreCheck Sem.FsFrag2
     Model.Backend Model.Uniquify Model.Focus Model.FocusCheck Model.FocusTyGuard Model.LinCheck
     Proof.CoreInd Proof.SubstProof Proof.CheckLemmas Proof.UniquifyProof Proof.FocusLemmas Proof.FocusProof Proof.PathLemmas
     Proof.FocusTheorems Proof.FocusKont Proof.FocusMono Proof.CoreTyRules Proof.FsTyRules Proof.FocusTy Proof.UqTyTop
     Proof.ShrinkProof Proof.WtPreserve Proof.LinBasics.
Import ListNotations.
Open Scope list_scope.
Open Scope N_scope.

(* the two spellings of "binder ids of a focused statement" *)
Lemma fs_binders_eq_all :
  (forall t, fs_binders_term t = fs_binder_ids_term t) /\
  (forall c, match c with FsClause _ _ ctx b => cids ctx ++ fs_binders b end = fs_binder_ids_clause c) /\
  (forall s, fs_binders s = fs_binder_ids_stmt s).
Proof.
  apply fs_mutind; intros; simpl; try reflexivity.
  - rewrite H. reflexivity.
  - induction H as [|[c0 x ctx b] r Hc _ IH]; simpl; [reflexivity|]. simpl in Hc. rewrite <- Hc, IH, app_assoc. reflexivity.
  - rewrite H. reflexivity.
  - rewrite H, H0. reflexivity.
  - rewrite H, H0. reflexivity.
  - exact H.
Qed.

(* global distinctness of binder ids gives path uniqueness (Sem/FsCheck.v's form) *)
Lemma fresh_ids_intro : forall xs scope, NoDup xs -> (forall x, In x xs -> ~ In x scope) -> fresh_ids scope xs = true.
Proof.
  induction xs as [|x r IH]; intros scope Hnd Hs; [reflexivity|]. simpl. inversion Hnd; subst.
  apply andb_true_iff. split.
  - apply negb_true_iff. destruct (mem_id x scope) eqn:E; [|reflexivity]. unfold mem_id in E. apply existsb_exists in E.
    destruct E as [y [Hy Ey]]. apply N.eqb_eq in Ey. subst y. exfalso. apply (Hs x); [left; reflexivity | exact Hy].
  - apply IH; [assumption|]. intros y Hy [<-|Hin]; [contradiction | apply (Hs y); [right; exact Hy | exact Hin]].
Qed.
Lemma in_rev_append : forall (X : Type) (l s : list X) x, In x (rev_append l s) <-> In x l \/ In x s.
Proof. intros. rewrite rev_append_rev, in_app_iff, <- in_rev. tauto. Qed.

Lemma ub_of_nodup_all :
  (forall t scope, NoDup (fs_binder_ids_term t) -> (forall i, In i (fs_binder_ids_term t) -> ~ In i scope) -> ub_term scope t = true) /\
  (forall c scope, NoDup (fs_binder_ids_clause c) -> (forall i, In i (fs_binder_ids_clause c) -> ~ In i scope) ->
     match c with FsClause _ _ ctx body => fresh_ids scope (cids ctx) && ub_stmt (rev_append (cids ctx) scope) body = true end) /\
  (forall s scope, NoDup (fs_binder_ids_stmt s) -> (forall i, In i (fs_binder_ids_stmt s) -> ~ In i scope) -> ub_stmt scope s = true).
Proof.
  apply fs_mutind; intros; simpl in *; try reflexivity.
  - (* Mu *) inversion H0; subst. apply andb_true_iff. split.
    + apply negb_true_iff. destruct (mem_id (cid_id v) scope) eqn:E; [|reflexivity]. unfold mem_id in E. apply existsb_exists in E.
      destruct E as [y [Hy Ey]]. apply N.eqb_eq in Ey. subst y. exfalso. apply (H1 (cid_id v)); [left; reflexivity | exact Hy].
    + apply H; [assumption|]. intros i Hi [<-|Hin]; [contradiction | apply (H1 i); [right; exact Hi | exact Hin]].
  - (* XCase *) induction H as [|[c0 x ctx b] r Hc _ IH]; [reflexivity|]. simpl in H0, H1.
    apply NoDup_app_iff in H0. destruct H0 as (N1 & N2 & N3).
    rewrite (Hc scope N1); [|intros i Hi; apply H1; apply in_or_app; left; exact Hi]. simpl.
    apply IH; [exact N2|]. intros i Hi. apply H1. apply in_or_app. right. exact Hi.
  - (* Clause *) apply NoDup_app_iff in H0. destruct H0 as (N1 & N2 & N3). apply andb_true_iff. split.
    + apply fresh_ids_intro; [exact N1|]. intros y Hy. apply H1. apply in_or_app. left. exact Hy.
    + apply H; [exact N2|]. intros i Hi Hin. apply in_rev_append in Hin. destruct Hin as [Hin|Hin].
      * exact (N3 i Hin Hi).
      * apply (H1 i); [apply in_or_app; right; exact Hi | exact Hin].
  - (* Cut *) apply NoDup_app_iff in H1. destruct H1 as (N1 & N2 & N3).
    rewrite H, H0; auto; intros i Hi; apply H2; apply in_or_app; auto.
  - (* IfC *) apply NoDup_app_iff in H1. destruct H1 as (N1 & N2 & N3).
    rewrite H, H0; auto; intros i Hi; apply H2; apply in_or_app; auto.
  - (* Print *) apply H; assumption.
Qed.

(* the two spellings of "all ids <= m" *)
Lemma ctx_le_cids : forall m args, forallb (fun i => N.leb i m) (cids args) = true -> ctx_le m args = true.
Proof. intros m args H. unfold ctx_le, id_le, cids in *. rewrite forallb_forall in *. intros b Hb. apply H. apply (in_map (fun b => cid_id (cbvar b))). exact Hb. Qed.
Definition ib_cls (m : N) : list fsclause -> bool :=
  fix go (cls : list fsclause) : bool :=
    match cls with [] => true | FsClause _ _ ctx body :: r => ctx_le m ctx && ib_stmt m body && go r end.
Lemma ib_cls_cons : forall m c x ctx b r, ib_cls m (FsClause c x ctx b :: r) = ctx_le m ctx && ib_stmt m b && ib_cls m r.
Proof. reflexivity. Qed.
Lemma ib_of_ids_le_all : forall m,
  (forall t, fs_ids_le_term m t = true -> ib_term m t = true) /\
  (forall c, fs_ids_le_clause m c = true -> match c with FsClause _ _ ctx body => ctx_le m ctx && ib_stmt m body = true end) /\
  (forall s, fs_ids_le_stmt m s = true -> ib_stmt m s = true).
Proof.
  intros m. apply fs_mutind; cbn [fs_ids_le_term fs_ids_le_clause fs_ids_le_stmt ib_term ib_stmt]; intros; bsplit; auto using ctx_le_cids.
  (* XCase *)
  change (ib_cls m cls = true). rename H into F, H0 into H.
  induction F as [|[c0 x ctx b] r Hc _ IH]; [reflexivity|]. simpl in H. apply andb_true_iff in H. destruct H as [H1 H2].
  rewrite ib_cls_cons. rewrite (Hc H1). simpl. apply IH. exact H2.
Qed.

(* a typed focused statement respects the prdcns discipline *)
Section FsChi.
  Variables (data codata : list ctydecl) (fdefs : list fsdef).
  Lemma clauses_match_chi : forall side n cls xs, clauses_match side n cls xs = None ->
    forall cl, In cl cls -> match cl with FsClause c' _ _ _ => c' = side end.
  Proof.
    intros side n. induction cls as [|[c' x ctx body] cr IH]; intros xs H cl Hin; [contradiction|].
    destruct xs as [|sg xr]; [discriminate|]. cbn [clauses_match] in H.
    apply seqn in H. destruct H as [H1 H]. apply fens in H1. apply ceq_chi in H1.
    apply seqn in H. destruct H as [_ H]. apply seqn in H. destruct H as [_ H].
    destruct Hin as [<-|Hin]; [exact H1 | eapply IH; eassumption].
  Qed.
  Lemma fs_chi_cls_eq : forall c cls,
    (fix go (l : list fsclause) : bool := match l with [] => true | y :: r => chi_ok_fsclause c y && go r end) cls
    = forallb (chi_ok_fsclause c) cls.
  Proof. intros c. induction cls as [|a r IH]; simpl; [reflexivity | rewrite IH; reflexivity]. Qed.
  Lemma fs_typed_chi_all :
    (forall t G side ty, check_term data codata fdefs G side ty t = None -> chi_ok_fsterm side t = true) /\
    (forall c G, fclause_typed data codata fdefs G c -> match c with FsClause _ _ _ body => chi_ok_fsstmt body = true end) /\
    (forall s G, check_stmt data codata fdefs G s = None -> chi_ok_fsstmt s = true).
  Proof.
    apply fs_mutind.
    - intros c v t G side ty H. apply kt_var in H. destruct H as [-> _]. simpl. apply ceq_chi_refl.
    - reflexivity.
    - reflexivity.
    - intros c v s t IH G side ty H. apply kt_mu in H. destruct H as [-> [_ H]]. simpl. rewrite ceq_chi_refl, (IH _ H). reflexivity.
    - intros c x args t G side ty H. cbn [check_term] in H. apply seqn in H. destruct H as [H _]. apply fens in H. apply ceq_chi in H.
      subst. simpl. apply ceq_chi_refl.
    - intros c cls t F G side ty H. cbn [check_term] in H.
      apply seqn in H. destruct H as [H1 H]. apply fens in H1. apply ceq_chi in H1. subst c.
      apply seqn in H. destruct H as [_ H]. destruct ty as [|n]; [discriminate|].
      destruct (find_decl _ n) as [d|]; [|discriminate]. apply seqn in H. destruct H as [Hm Hc].
      apply (fclauses_loop_iff data codata fdefs G cls) in Hc.
      cbn [chi_ok_fsterm]. rewrite ceq_chi_refl, fs_chi_cls_eq. simpl. apply forallb_forall. intros cl Hin.
      rewrite Forall_forall in F, Hc. pose proof (clauses_match_chi _ _ _ _ Hm cl Hin) as Hchi.
      pose proof (F cl Hin G (Hc cl Hin)) as Hb. destruct cl as [c' x ctx body]. subst c'. simpl. rewrite ceq_chi_refl, Hb. reflexivity.
    - intros c x ctx body IH G H. unfold fclause_typed in H. eapply IH; exact H.
    - intros p t k IHp IHk G H. apply ks_cut in H. destruct H as [_ [Hp Hk]]. simpl. rewrite (IHp _ _ _ Hp), (IHk _ _ _ Hk). reflexivity.
    - intros so a b t e IHt IHe G H. apply ks_ifc in H. destruct H as [_ [_ [Ht He]]]. simpl. rewrite (IHt _ Ht), (IHe _ He). reflexivity.
    - intros nl a next IHn G H. apply ks_print in H. destruct H as [_ Hn]. simpl. eapply IHn; exact Hn.
    - reflexivity.
    - reflexivity.
  Qed.
End FsChi.

Lemma rel_refl_nodup : forall G, NoDup (cids G) -> rel G G.
Proof.
  intros G Hnd x b Hx. pose proof (clookup_var _ _ _ Hx) as Hv. rewrite <- Hv.
  apply flookup_nodup; [exact Hnd | eapply clookup_In; exact Hx].
Qed.

Definition fdef_like (d : cdef) (q : fsdef) : Prop := fsdname q = cdname d /\ fsdctx q = cdctx d.
Lemma focus_defs_like : forall ds m qs m', maprs focus_def ds m = Ok (qs, m') -> Forall2 fdef_like ds qs.
Proof.
  induction ds as [|d r IH]; intros m qs m' H; simpl in H.
  - okinv H. constructor.
  - apply rbind_ok in H. destruct H as ([q m1] & Eq & H). apply rbind_ok in H. destruct H as ([r1 m2] & Er & H). okinv H.
    constructor; [|eapply IH; eauto]. unfold focus_def in Eq. apply rbind_ok in Eq. destruct Eq as ([b mb] & Eb & Eq). okinv Eq. split; reflexivity.
Qed.
Lemma fdef_like_find : forall ds qs f d, Forall2 fdef_like ds qs ->
  find (fun d => cident_eqb (cdname d) f) ds = Some d ->
  exists q, find (fun q => cident_eqb (fsdname q) f) qs = Some q /\ fsdctx q = cdctx d.
Proof.
  intros ds qs f d H. induction H as [|a q r r1 [Hn Hc] Hr IH]; intros Hf; simpl in *; [discriminate|].
  rewrite Hn. destruct (cident_eqb (cdname a) f).
  - injection Hf as <-. exists q. auto.
  - apply IH. exact Hf.
Qed.
Lemma fdef_like_names : forall ds qs, Forall2 fdef_like ds qs -> map fsdname qs = map cdname ds.
Proof. induction 1 as [|a q r r1 [Hn _] _ IH]; simpl; [reflexivity | rewrite Hn, IH; reflexivity]. Qed.

(* a judgement that [focus_stmt] establishes for statements, carried over to the definitions of a program *)
Lemma focus_defs_lift : forall (CS : cctx -> cstmt -> Prop) (QS : cctx -> fsstmt -> Prop),
  (forall s m Gs Gt T s' m', focus_stmt s m = Ok (s', m') -> CS Gs s -> rel Gs Gt ->
     NoDup (binder_ids_stmt s ++ cids Gs) -> ids_le_stmt T s = true -> mem_le T (cids Gs) -> T <= m ->
     mem_le m (cids Gt) -> QS Gt s') ->
  forall ds m qs m' M, maprs focus_def ds m = Ok (qs, m') -> M <= m ->
  (forall d, In d ds -> ids_le_def M d = true /\ NoDup (binder_ids_def d) /\ CS (cdctx d) (cdbody d)) ->
  forall q, In q qs -> QS (fsdctx q) (fsdbody q).
Proof.
  intros CS QS HS. induction ds as [|[name ctx body] r IH]; intros m qs m' M H LE Hall q Hin; simpl in H.
  - okinv H. contradiction.
  - rb2 H q1 m1 Eq1. rb2 H r1 m2 Er. okinv H.
    unfold focus_def in Eq1. simpl in Eq1. rb2 Eq1 b mb Eb. okinv Eq1.
    destruct Hin as [<-|Hin].
    + destruct (Hall _ (or_introl eq_refl)) as [Hid [Hnd Ht]]. simpl in Ht |- *.
      unfold ids_le_def in Hid. simpl in Hid. apply andb_true_iff in Hid. destruct Hid as [Hic Hib].
      unfold binder_ids_def in Hnd. simpl in Hnd. apply NoDup_app_iff in Hnd. destruct Hnd as (N1 & N2 & N3).
      apply forallb_leb in Hic.
      refine (HS body m ctx ctx M b m1 Eb Ht (rel_refl_nodup ctx N1) _ Hib Hic LE (mem_le_mono _ _ _ Hic LE)).
      apply NoDup_app_iff. repeat split; auto. intros x Hx1 Hx2. exact (N3 x Hx2 Hx1).
    + refine (IH m1 r1 m' M Er _ (fun d0 Hd0 => Hall d0 (or_intror Hd0)) q Hin).
      pose proof (focus_stmt_mono _ _ _ _ Eb). lia.
Qed.

Lemma find_decl_in : forall ts n d, find_decl ts n = Some d -> In d ts.
Proof. intros ts n d H. unfold find_decl in H. apply find_some in H. tauto. Qed.
Lemma find_cxtor_in : forall d x sg, find_cxtor d x = Some sg -> In sg (ctxtors d).
Proof. intros d x sg H. unfold find_cxtor in H. apply find_some in H. tauto. Qed.

(* the parts of `Prog::focus` on a typed program: the uniquified definitions ds' (typed, with the binder
   specification of Proof/FocusTheorems.v) and their focused forms qs *)
Lemma focus_prog_inv : forall c f, wt_core c = true -> pre_check c = true -> focus_prog c = Ok f ->
  exists ds' M qs M', f = mkfsp qs (cpdata c) (cpcodata c) M' /\ cpmax c <= M /\
    maprs uq_def (cpdefs c) (cpmax c) = Ok (ds', M) /\ Forall2 (udef_ok (cpmax c) M) (cpdefs c) ds' /\
    maprs focus_def ds' M = Ok (qs, M') /\ check_core (mkcp ds' (cpdata c) (cpcodata c) M) = None.
Proof.
  intros c f Hwt Hpre Hf.
  pose proof (wt_core_focus_wf c Hwt) as Hwf.
  assert (Hids : forallb (ids_le_def (cpmax c)) (cpdefs c) = true).
  { unfold pre_check in Hpre. rewrite forallb_forall in *. intros d Hd. specialize (Hpre d Hd). unfold pre_def in Hpre.
    apply andb_true_iff in Hpre. destruct Hpre as [Hpre _]. apply andb_true_iff in Hpre. tauto. }
  unfold focus_prog in Hf. rb Hf c1 Eu.
  pose proof (uniquify_preserves_typing c c1 Hwt Hids Eu) as Hwt1. apply wt_core_iff in Hwt1.
  unfold uniquify_prog in Eu.
  destruct (uq_defs_spec (cpdefs c) (cpmax c) (cpmax c)) as (ds' & M & E & L & F); try lia.
  { apply wf_pre_forall; split; auto. }
  rewrite E in Eu. simpl in Eu. okinv Eu. cbn [cpdefs cpmax cpdata cpcodata] in Hf.
  rb2 Hf qs M' Ef. okinv Hf. exists ds', M, qs, M'. repeat split; assumption.
Qed.

Theorem focus_preserves_typing_thm : forall c f,
  wt_core c = true -> pre_check c = true -> xtor_tys_ok c = true -> names_le c = true -> focus_prog c = Ok f ->
  wt_fs f = true /\ unique_binders f = true /\ ids_bounded f = true /\ gub f = true.
Proof.
  intros c f Hwt Hpre Hxt Hnl Hf.
  destruct (focus_prog_inv c f Hwt Hpre Hf) as (ds' & M & qs & M' & -> & L & E & F & E2 & Hc1).
  destruct (focus_defs_spec ds' M M) as (qs0 & M0 & E2' & L2 & F2); try lia.
  { eapply forall2_right; [exact F|]. intros d d' (A & B & C & D & E'). auto. }
  rewrite E2 in E2'. injection E2' as <- <-.
  apply check_core_iff in Hc1. cbv zeta in Hc1. cbn [cpdefs cpdata cpcodata] in Hc1.
  destruct Hc1 as (C1 & C2 & C3 & C4 & C5 & C6). apply ccheck_defs_iff in C6. rewrite Forall_forall in C6.
  pose proof (focus_defs_like _ _ _ _ E2) as Hlike.
  assert (HXT : forall ts n d x sg, ts = cpdata c \/ ts = cpcodata c -> find_decl ts n = Some d -> find_cxtor d x = Some sg ->
                  forall b, In b (cxargs sg) -> ty_ok (cpdata c) (cpcodata c) (cbty b) = true).
  { intros ts n d x sg Hts Hd Hsg b Hb. unfold xtor_tys_ok in Hxt. rewrite forallb_forall in Hxt.
    assert (Hin : In d (cpdata c ++ cpcodata c)).
    { apply in_or_app. destruct Hts as [->| ->]; [left | right]; eapply find_decl_in; eauto. }
    specialize (Hxt d Hin). rewrite forallb_forall in Hxt. specialize (Hxt sg (find_cxtor_in _ _ _ Hsg)).
    rewrite forallb_forall in Hxt. apply Hxt. exact Hb. }
  assert (HPT : forall g d, find (fun d => cident_eqb (cdname d) g) ds' = Some d -> forall b, In b (cdctx d) -> ty_ok (cpdata c) (cpcodata c) (cbty b) = true).
  { intros g d Hd b Hb. apply find_some in Hd. destruct Hd as [Hd _].
    destruct (C6 d Hd) as [_ [H2 _]]. cbn [cpdata cpcodata] in H2.
    rewrite forallb_forall in H2. apply H2. exact Hb. }
  assert (Hud : forall d', In d' ds' -> wf_stmt (cdbody d') = true /\ NoDup (binder_ids_def d') /\ ids_le_def M d' = true).
  { intros d' Hd'. assert (HF : Forall (fun d' => wf_stmt (cdbody d') = true /\ NoDup (binder_ids_def d') /\ ids_le_def M d' = true) ds').
    { eapply forall2_right; [exact F|]. intros d0 d1 (A & B & C & D & E'). auto. }
    rewrite Forall_forall in HF. apply HF. exact Hd'. }
  assert (Hq : forall q, In q qs -> check_stmt (cpdata c) (cpcodata c) qs (fsdctx q) (fsdbody q) = None).
  { refine (focus_defs_lift _ _ (focus_stmt_typed (cpdata c) (cpcodata c) ds' qs HXT HPT (fun g d Hg => fdef_like_find ds' qs g d Hlike Hg))
              ds' M qs M' M E2 (N.le_refl _) _).
    intros d Hd. destruct (Hud d Hd) as [_ [U2 U3]]. split; [exact U3|]. split; [exact U2|].
    exact (proj2 (proj2 (C6 d Hd))). }
  assert (Hfd : forall q, In q qs -> NoDup (fs_binder_ids_def q) /\ fs_ids_le_def M' q = true).
  { intros q Hq0. assert (HF : Forall (fun q => NoDup (fs_binder_ids_def q) /\ fs_ids_le_def M' q = true) qs).
    { apply (forall2_right _ _ _ _ _ _ F2). intros d0 q0 (A & B & C & D). auto. }
    rewrite Forall_forall in HF. apply HF. exact Hq0. }
  split; [|split; [|split]].
  - (* wt_fs *)
    unfold wt_fs. assert (Ec : check_fs (mkfsp qs (cpdata c) (cpcodata c) M') = None); [|rewrite Ec; reflexivity].
    unfold check_fs. cbn [fspdata fspcodata fspdefs].
    unfold chi_ok_cprog in C1. cbn [cpdefs cpdata cpcodata] in C1.
    apply andb_true_iff in C1. destruct C1 as [C1 C1c]. apply andb_true_iff in C1. destruct C1 as [_ C1d].
    apply seqn. split.
    { apply fens. unfold chi_ok_fsprog. cbn [fspdata fspcodata fspdefs]. rewrite C1d, C1c, !andb_true_r.
      apply forallb_forall. intros q Hq0. eapply (proj2 (proj2 (fs_typed_chi_all (cpdata c) (cpcodata c) qs))). apply Hq. exact Hq0. }
    apply seqn. split; [apply fens; exact C2|]. apply seqn. split; [apply fens; exact C3|]. apply seqn. split; [apply fens; exact C4|].
    apply seqn. split; [apply fens; rewrite (fdef_like_names _ _ Hlike); exact C5|].
    cbn [fspdefs]. assert (Hgen : forall l, (forall q, In q l -> In q qs) -> check_defs (mkfsp qs (cpdata c) (cpcodata c) M') l = None).
    { induction l as [|q r IH]; intros Hl; [reflexivity|]. cbn [check_defs fspdata fspcodata fspdefs].
      apply seqn. split.
      - apply fens. destruct (Hfd q (Hl q (or_introl eq_refl))) as [Hn _]. unfold fs_binder_ids_def in Hn.
        apply NoDup_app_iff in Hn. destruct Hn as [Hn _]. apply nodupN_NoDup in Hn.
        clear -Hn. induction (cids (fsdctx q)) as [|x l IHl]; [reflexivity|]. simpl in *.
        apply andb_true_iff in Hn. destruct Hn as [H1 H2]. rewrite (IHl H2), andb_true_r. exact H1.
      - rewrite (Hq q (Hl q (or_introl eq_refl))). apply IH. intros q0 Hq0. apply Hl. right. exact Hq0. }
    apply Hgen. auto.
  - (* unique_binders *)
    unfold unique_binders. cbn [fspdefs]. apply forallb_forall. intros q Hq0.
    destruct (Hfd q Hq0) as [Hn _]. unfold fs_binder_ids_def in Hn. apply NoDup_app_iff in Hn. destruct Hn as (N1 & N2 & N3).
    apply andb_true_iff. split.
    + apply fresh_ids_intro; [exact N1 | intros x _ []].
    + apply (proj2 (proj2 ub_of_nodup_all)); [exact N2|]. intros i Hi Hin. exact (N3 i Hin Hi).
  - (* ids_bounded *)
    unfold ids_bounded. cbn [fspdefs fspmax]. apply forallb_forall. intros q Hq0.
    destruct (Hfd q Hq0) as [_ Hle]. unfold fs_ids_le_def in Hle. apply andb_true_iff in Hle. destruct Hle as [Hl1 Hl2].
    apply andb_true_iff. split; [apply andb_true_iff; split|].
    + (* the name of the definition *)
      assert (Hname : exists d, In d (cpdefs c) /\ cdname d = fsdname q).
      { assert (Hn1 : In (fsdname q) (map cdname (cpdefs c))).
        { rewrite <- (like_names _ _ (uq_defs_like _ _ _ _ E)), <- (fdef_like_names _ _ Hlike). apply in_map. exact Hq0. }
        apply in_map_iff in Hn1. destruct Hn1 as [d [Hd1 Hd2]]. exists d. auto. }
      destruct Hname as [d [Hd Hdn]]. unfold names_le in Hnl. rewrite forallb_forall in Hnl. specialize (Hnl d Hd).
      unfold id_le. rewrite <- Hdn. apply N.leb_le. apply N.leb_le in Hnl. lia.
    + apply ctx_le_cids. exact Hl1.
    + apply (proj2 (proj2 (ib_of_ids_le_all M'))). exact Hl2.
  - (* gub *)
    unfold gub. cbn [fspdefs]. apply forallb_forall. intros q Hq0.
    destruct (Hfd q Hq0) as [Hn _]. unfold fs_binder_ids_def in Hn.
    rewrite (proj2 (proj2 fs_binders_eq_all)). apply nodupb_NoDup. exact Hn.
Qed.
