(* Allocation and the representation invariant: one `alloc` step (what it writes, what it leaves
   alone, the chain invariant KI), then `store_other` / `alloc_object` by induction: the object that
   `alloc_object fields` returns has exactly `fields` (after the zero padding of its head block) as
   its `obj_fields`, its chain has nlinks (length fields) links, and everything reachable from the
   old roots keeps its slots and its ghost link count. *)
From Coq Require Import List ZArith Lia Bool Permutation.
From SCC Require Import Model.Heap Proof.HeapMore Proof.HeapTrace Proof.HeapRep.
Import ListNotations.
Open Scope Z_scope.

Lemma erase_list_hdr_other l : forall s x, ~ In x l -> hdr (m (fold_left (fun s c => erase c s) l s) x) = hdr (m s x).
Proof.
  induction l as [|c l IH]; intros s x Hx; cbn [fold_left]; auto.
  rewrite IH by (intro; apply Hx; now right). apply erase_hdr_other. intro; apply Hx; now left.
Qed.
Lemma erase_list_ps l : forall s x, ps (m (fold_left (fun s c => erase c s) l s) x) = ps (m s x).
Proof. induction l as [|c l IH]; intros s x; cbn [fold_left]; auto. rewrite IH. apply erase_ps. Qed.

Lemma set_hdr_ps mm a h x : ps (set_hdr mm a h x) = ps (mm x).
Proof. unfold set_hdr, upd. destruct (Z.eqb_spec x a); subst; auto. Qed.

Lemma acquire_ps s x : ps (m (snd (acquire s)) x) = ps (m s x).
Proof.
  unfold acquire. destruct (negb (hdr (m s (heap s)) =? 0)); cbn [snd m]; [apply set_hdr_ps|].
  destruct (hdr (m s (free s)) =? 0); cbn [snd m]; auto.
  rewrite erase_list_ps. cbn [m]. apply set_hdr_ps.
Qed.
Lemma acquire_hdr_other s x :
  x <> heap s -> x <> free s -> ~ In x (ps (m s (free s))) -> hdr (m (snd (acquire s)) x) = hdr (m s x).
Proof.
  intros H1 H2 H3. unfold acquire. destruct (negb (hdr (m s (heap s)) =? 0)); cbn [snd m]; [now apply hdr_set_hdr_other|].
  destruct (hdr (m s (free s)) =? 0); cbn [snd m]; auto.
  rewrite erase_list_hdr_other by exact H3. cbn [m]. now apply hdr_set_hdr_other.
Qed.
Lemma acquire_hdr_heap s R hl fl cl : Inv s R hl fl cl -> hdr (m (snd (acquire s)) (heap s)) = 0.
Proof.
  intros I. unfold acquire. destruct (Z.eqb_spec (hdr (m s (heap s))) 0) as [H0|Hn]; cbn [negb snd m].
  2:{ apply hdr_set_hdr_same. }
  destruct (Z.eqb_spec (hdr (m s (free s))) 0) as [Hf0|Hfn]; cbn [snd m]; auto.
  destruct (heap_not_counted _ _ _ _ _ I) as [Hncl Hnfl].
  assert (Hffl : In (free s) fl).
  { destruct (free_cases _ _ _ _ _ I) as [[E _]|]; auto. rewrite E, (i_fresh _ _ _ _ _ I (frontier s)) in Hfn by lia. now cbn in Hfn. }
  assert (Hne : heap s <> free s) by (intros E; rewrite E in Hnfl; contradiction).
  rewrite erase_list_hdr_other.
  - cbn [m]. rewrite hdr_set_hdr_other; auto.
  - intros Hin. pose proof (heap_nonzero _ _ _ _ _ I) as Hh0.
    apply Hncl. eapply (child_counted _ _ _ _ _ (free s)); eauto. rewrite in_app_iff. now right.
Qed.

Definition wr (sl : list Z) (s : st) : st :=
  {| m := set_ps (m s) (heap s) sl; heap := heap s; free := free s; frontier := frontier s |}.
Lemma alloc_wr sl s : alloc sl s = acquire (wr sl s).
Proof. reflexivity. Qed.
Lemma wr_ps sl s x : ps (m (wr sl s) x) = if x =? heap s then sl else ps (m s x).
Proof. cbn. unfold set_ps, upd. destruct (x =? heap s); reflexivity. Qed.
Lemma wr_hdr sl s x : hdr (m (wr sl s) x) = hdr (m s x).
Proof. cbn. unfold set_ps, upd. destruct (Z.eqb_spec x (heap s)); subst; reflexivity. Qed.

Lemma alloc_ps sl s x : ps (m (snd (alloc sl s)) x) = if x =? heap s then sl else ps (m s x).
Proof. rewrite alloc_wr, acquire_ps. apply wr_ps. Qed.
Lemma alloc_hdr_other s R hl fl cl sl x :
  Inv s R hl fl cl -> x <> heap s -> x <> free s -> ~ In x (ps (m s (free s))) ->
  hdr (m (snd (alloc sl s)) x) = hdr (m s x).
Proof.
  intros I H1 H2 H3. rewrite alloc_wr, acquire_hdr_other; cbn [heap free wr]; auto.
  - apply wr_hdr.
  - rewrite wr_ps. destruct (Z.eqb_spec (free s) (heap s)) as [E|_]; auto.
    exfalso. destruct (heap_not_counted _ _ _ _ _ I) as [_ Hnfl]. destruct (free_cases _ _ _ _ _ I) as [[E1 _]|Hf].
    + destruct (heap_in_hl _ _ _ _ _ I) as (l & El).
      pose proof (i_below _ _ _ _ _ I (heap s) ltac:(rewrite El; now left)). lia.
    + rewrite E in Hf. contradiction.
Qed.
Lemma alloc_hdr_heap s R hl fl cl sl : Inv s R hl fl cl -> hdr (m (snd (alloc sl s)) (heap s)) = 0.
Proof.
  intros I. rewrite alloc_wr. change (heap s) with (heap (wr sl s)).
  eapply acquire_hdr_heap. apply (set_ps_hl_inv s R hl fl cl (heap s) sl I).
  destruct (heap_in_hl _ _ _ _ _ I) as (l & ->). now left.
Qed.

Definition updlk (lk : lkmap) (r : Z) (j : nat) : lkmap := fun x => if x =? r then j else lk x.
Lemma updlk_same lk r j : updlk lk r j r = j.
Proof. unfold updlk. now rewrite Z.eqb_refl. Qed.
Lemma updlk_other lk r j x : x <> r -> updlk lk r j x = lk x.
Proof. unfold updlk. intros H. destruct (Z.eqb_spec x r); congruence. Qed.

Lemma nth2_in (sl : list Z) : nth 2 sl 0 <> 0 -> In (nth 2 sl 0) sl.
Proof. intros H. destruct sl as [|a [|b [|c r]]]; cbn in *; try congruence. auto. Qed.

Lemma alloc_step base lk s R R0 hl fl cl sl j :
  InvA base s R hl fl cl -> Permutation R (nz sl ++ R0) -> KI lk s R ->
  (j <> O -> nth 2 sl 0 <> 0 /\ hdr (m s (nth 2 sl 0)) = 0 /\ S (lk (nth 2 sl 0)) = j) ->
  let r := heap s in let s' := snd (alloc sl s) in let lk' := updlk lk r j in
  fst (alloc sl s) = r /\ r <> 0 /\
  (exists hl' fl' cl', InvA base s' (r :: R0) hl' fl' cl' /\ fr_rel s hl s' hl' /\
                       (length cl + length fl <= length cl' + length fl')%nat) /\
  ps (m s' r) = sl /\ hdr (m s' r) = 0 /\
  (forall b, b <> r -> ps (m s' b) = ps (m s b)) /\
  ~ reach (m s) R r /\
  (forall b, reach (m s) R b -> reach (m s') (r :: R0) b) /\
  KI lk' s' (r :: R0).
Proof.
  intros IA HP K Hj r s' lk'. pose proof (proj1 IA) as I.
  destruct (alloc_invA base s R R0 hl fl cl sl IA HP) as [Hfst Hex].
  destruct (heap_not_counted _ _ _ _ _ I) as [Hrcl Hrfl]. fold r in Hrcl, Hrfl.
  assert (Hr0 : r <> 0) by (eapply heap_nonzero; eauto).
  assert (Hps : forall b, ps (m s' b) = if b =? r then sl else ps (m s b)) by (intros; apply alloc_ps).
  assert (Hpsr : ps (m s' r) = sl) by (rewrite Hps, Z.eqb_refl; reflexivity).
  assert (Hpso : forall b, b <> r -> ps (m s' b) = ps (m s b)).
  { intros b Hb. rewrite Hps. destruct (Z.eqb_spec b r); congruence. }
  assert (Hnr : ~ reach (m s) R r) by (intros Hr; apply Hrcl; eapply reach_root_counted; eauto).
  assert (Hold : forall b, reach (m s) R b -> b <> r) by (intros b Hb ->; contradiction).
  assert (Hsl : forall c, In c sl -> c <> 0 -> In c R).
  { intros c Hc Hc0. eapply Permutation_in; [symmetry; exact HP|]. rewrite in_app_iff. left. apply in_nz. auto. }
  assert (Hfwd : forall b, reach (m s) R b -> reach (m s') (r :: R0) b).
  { induction 1 as [b Hb Hb0|x b Hx IH Hb Hb0].
    - apply (Permutation_in _ HP) in Hb. apply in_app_iff in Hb as [Hb|Hb].
      + apply in_nz in Hb as [Hb _]. eapply reach_slot; [apply reach_src; [now left|exact Hr0]| |exact Hb0]. now rewrite Hpsr.
      + apply reach_src; auto. now right.
    - eapply reach_slot; [exact IH| |exact Hb0]. rewrite Hpso by (apply Hold; exact Hx). exact Hb. }
  assert (Hbwd : forall b, reach (m s') (r :: R0) b -> b = r \/ reach (m s) R b).
  { induction 1 as [b Hb Hb0|x b Hx IH Hb Hb0].
    - destruct Hb as [<-|Hb]; [now left|right]. apply reach_src; auto.
      eapply Permutation_in; [symmetry; exact HP|]. rewrite in_app_iff. now right.
    - right. destruct IH as [->|IH].
      + rewrite Hpsr in Hb. apply reach_src; auto.
      + eapply reach_slot; [exact IH| |exact Hb0]. rewrite <- Hpso; auto. }
  (* headers of blocks with a single referrer are not touched *)
  assert (Hkeep : forall c, In c cl -> hdr (m s c) = 0 ->
            (In c R \/ exists x, In x cl /\ In c (ps (m s x))) -> hdr (m s' c) = 0).
  { intros c Hc Hh Href. unfold s'. rewrite (alloc_hdr_other s R hl fl cl sl c I); auto.
    - intros ->. contradiction.
    - intros ->. eapply free_not_counted; eauto.
    - intros Hin. pose proof (free_slot_cases _ _ _ _ _ _ I Hin) as Hffl.
      assert (Hf : In (free s) (cl ++ fl)) by (rewrite in_app_iff; auto).
      assert (Hc0 : c <> 0) by (apply (in_below_pos _ _ _ _ _ _ I); rewrite !in_app_iff; auto).
      destruct Href as [HR|(x & Hx & Hinx)].
      + destruct (sole_root_ref s R hl fl cl c I HR Hc0 Hh) as [_ N]. eapply N; eauto.
      + destruct (sole_slot_ref s R hl fl cl c x I Hc Hh ltac:(rewrite in_app_iff; auto) Hinx) as (_ & U & _).
        pose proof (U (free s) Hf Hin) as E. subst x.
        apply (NoDup_app_disj fl cl (free s) (NoDup_app_r _ _ (i_nodup _ _ _ _ _ I))); auto. }
  split; [exact Hfst|]. split; [exact Hr0|]. split; [exact Hex|]. split; [exact Hpsr|].
  split; [eapply alloc_hdr_heap; eauto|]. split; [exact Hpso|]. split; [exact Hnr|]. split; [exact Hfwd|].
  intros x Hx Hl. destruct (Hbwd x Hx) as [->|Hx0].
  - unfold lk' in *. rewrite updlk_same in *. destruct (Hj Hl) as (Hc0 & Hh & Hlk).
    set (c := nth 2 sl 0) in *. assert (HcR : In c R) by (apply Hsl; auto; now apply nth2_in).
    assert (Hccl : In c cl) by (eapply root_counted; eauto).
    assert (Hcr : c <> r) by (intros ->; contradiction).
    unfold link_of. rewrite Hpsr. fold c. split; [exact Hc0|]. split; [apply Hkeep; auto|].
    rewrite updlk_other by exact Hcr. exact Hlk.
  - pose proof (Hold x Hx0) as Hxr. unfold lk' in *. rewrite (updlk_other lk r j x Hxr) in Hl |- *.
    destruct (link_sole s R hl fl cl lk x I K Hx0 Hl) as (Hc0 & Hc & Hh & _ & _ & _).
    destruct (K x Hx0 Hl) as (_ & _ & Hlk).
    unfold link_of in *. rewrite Hpso by exact Hxr. set (c := nth 2 (ps (m s x)) 0) in *.
    assert (Hcr : c <> r) by (intros ->; contradiction).
    split; [exact Hc0|]. split.
    + apply Hkeep; auto. right. exists x. split; [eapply reach_root_counted; eauto|]. apply (link_in (m s) x). exact Hc0.
    + rewrite (updlk_other lk r j c Hcr). exact Hlk.
Qed.

Lemma length_lastn {A} k (l : list A) : length (lastn k l) = Nat.min k (length l).
Proof. unfold lastn. rewrite skipn_length. lia. Qed.
Lemma length_pad k l : (length l <= k)%nat -> length (pad k l) = k.
Proof. intros H. unfold pad. rewrite app_length, repeat_length. lia. Qed.
Lemma half_step n : (1 <= n)%nat -> ((n + 1) / 2 = S ((n - 2 + 1) / 2))%nat.
Proof.
  intros H. destruct n as [|[|n]]; [lia|reflexivity|].
  replace (S (S n) + 1)%nat with (n + 1 + 1 * 2)%nat by lia. rewrite Nat.div_add by lia.
  replace (S (S n) - 2 + 1)%nat with (n + 1)%nat by lia. lia.
Qed.
Lemma nlinks_half n : nlinks n = ((n - 3 + 1) / 2)%nat.
Proof.
  unfold nlinks. destruct (Nat.leb_spec n 3) as [H|H]; auto.
  replace (n - 3)%nat with O by lia. reflexivity.
Qed.

Lemma obj_fields_S k mm p : obj_fields (S k) mm p = fields_of mm p ++ obj_fields k mm (link_of mm p).
Proof. reflexivity. Qed.
Lemma obj_blocks_S k mm p : obj_blocks (S k) mm p = p :: obj_blocks k mm (link_of mm p).
Proof. reflexivity. Qed.

Lemma store_other_rep base : forall fuel rest link s R0 hl fl cl lk j done,
  (length rest <= fuel)%nat ->
  InvA base s (link :: nz rest ++ R0) hl fl cl -> KI lk s (link :: nz rest ++ R0) ->
  link <> 0 -> hdr (m s link) = 0 -> links_ok (lk link) (m s) link ->
  obj_fields (lk link) (m s) link = repeat 0 j ++ done -> (rest <> [] -> j = O) ->
  exists lk' j' hl' fl' cl',
    let r := store_other fuel rest link s in
    InvA base (snd r) (fst r :: R0) hl' fl' cl' /\ KI lk' (snd r) (fst r :: R0) /\
    fst r <> 0 /\ hdr (m (snd r) (fst r)) = 0 /\
    lk' (fst r) = (lk link + (length rest + 1) / 2)%nat /\
    links_ok (lk' (fst r)) (m (snd r)) (fst r) /\
    obj_fields (lk' (fst r)) (m (snd r)) (fst r) = repeat 0 j' ++ rest ++ done /\
    (forall b, reach (m s) (link :: nz rest ++ R0) b ->
       ps (m (snd r) b) = ps (m s b) /\ lk' b = lk b /\ reach (m (snd r)) (fst r :: R0) b).
Proof.
  induction fuel as [|f IH]; intros rest link s R0 hl fl cl lk j done Hlen IA K Hl0 Hh HL HF Hj.
  - destruct rest; [|cbn in Hlen; lia]. exists lk, j, hl, fl, cl. cbn [store_other fst snd nz filter app length] in *.
    replace ((0 + 1) / 2)%nat with O by reflexivity. rewrite Nat.add_0_r. repeat (split; auto).
  - destruct rest as [|x rest'].
    + exists lk, j, hl, fl, cl. cbn [store_other fst snd nz filter app length] in *.
      replace ((0 + 1) / 2)%nat with O by reflexivity. rewrite Nat.add_0_r. repeat (split; auto).
    + set (rest := x :: rest') in *. rewrite store_other_step by discriminate.
      assert (Hrne : rest <> []) by discriminate. specialize (Hj Hrne). subst j. cbn [repeat app] in HF.
      set (sl := pad 2 (lastn 2 rest) ++ [link]).
      assert (Lpad : length (pad 2 (lastn 2 rest)) = 2%nat) by (apply length_pad; rewrite length_lastn; lia).
      assert (Hn2 : nth 2 sl 0 = link) by (unfold sl; rewrite app_nth2 by lia; rewrite Lpad; reflexivity).
      assert (HP : Permutation (link :: nz rest ++ R0) (nz sl ++ (nz (butlastn 2 rest) ++ R0))).
      { unfold sl. rewrite nz_app, nz_pad, nz_single by auto.
        pose proof (nz_split_last 2 rest) as HS. apply perm_of_cnt. intros b.
        pose proof (cnt_perm _ _ b HS) as HC. rewrite cnt_app in HC.
        repeat (rewrite ?cnt_app, ?cnt_cons). change (cnt [] b) with 0. lia. }
      destruct (alloc_step base lk s _ _ hl fl cl sl (S (lk link)) IA HP K)
        as (Hfst & Hr0 & (hl1 & fl1 & cl1 & I1 & _ & _) & Hpsr & Hhr & Hpso & Hnr & Hfwd & K1).
      { intros _. rewrite Hn2. auto. }
      set (r1 := heap s) in *. set (lk1 := updlk lk r1 (S (lk link))) in *.
      destruct (alloc sl s) as [b s1] eqn:EA. cbn [fst snd] in *. subst b.
      assert (HlR : reach (m s) (link :: nz rest ++ R0) link) by (apply reach_src; auto; now left).
      assert (Hlr : link <> r1) by (intros E; apply Hnr; rewrite <- E; exact HlR).
      (* the chain of link is untouched *)
      assert (Hch : forall b, In b (obj_blocks (lk link) (m s) link) -> ps (m s1 b) = ps (m s b)).
      { intros b Hb. apply Hpso. intros ->. apply Hnr.
        eapply reach_trans; [|eapply obj_blocks_reach; eauto]. intros q [<-|[]] _. exact HlR. }
      assert (Elk1 : lk1 r1 = S (lk link)) by apply updlk_same.
      assert (Elk1l : lk1 link = lk link) by (apply updlk_other; exact Hlr).
      assert (Elink : link_of (m s1) r1 = link) by (unfold link_of; rewrite Hpsr; exact Hn2).
      assert (HL1 : links_ok (lk1 r1) (m s1) r1).
      { rewrite Elk1, <- Elk1l. intros b Hb. rewrite Elk1l in Hb. rewrite obj_blocks_S, Elink in Hb. destruct Hb as [<-|Hb]; auto.
        rewrite (obj_blocks_ext_on (m s) (m s1)) in Hb by exact Hch. now apply HL. }
      assert (HF1 : obj_fields (lk1 r1) (m s1) r1 = repeat 0 (2 - length (lastn 2 rest)) ++ (lastn 2 rest ++ done)).
      { rewrite Elk1, obj_fields_S, Elink, (obj_fields_ext_on (m s) (m s1)) by exact Hch. rewrite HF.
        unfold fields_of. rewrite Hpsr. unfold sl. rewrite firstn_app, Lpad, Nat.sub_diag, firstn_O, app_nil_r.
        rewrite firstn_all2 by lia. rewrite skipn_app, Lpad. rewrite (skipn_all2 (n := 3)) by lia. cbn [Nat.sub skipn app].
        unfold pad. now rewrite <- !app_assoc. }
      assert (Hlen' : (length (butlastn 2 rest) <= f)%nat).
      { rewrite length_butlastn. unfold rest in *. cbn [length] in *. lia. }
      assert (Hj1 : butlastn 2 rest <> [] -> (2 - length (lastn 2 rest))%nat = O).
      { intros Hne. rewrite length_lastn. destruct (butlastn 2 rest) eqn:E; [congruence|].
        pose proof (length_butlastn 2 rest) as L. rewrite E in L. cbn [length] in L. lia. }
      destruct (IH (butlastn 2 rest) r1 s1 R0 hl1 fl1 cl1 lk1 _ (lastn 2 rest ++ done) Hlen' I1 K1 Hr0 Hhr HL1 HF1 Hj1)
        as (lk2 & j2 & hl2 & fl2 & cl2 & I2 & K2 & N2 & Hh2 & Hlk2 & HL2 & HF2 & Fr2).
      exists lk2, j2, hl2, fl2, cl2. cbn zeta in *.
      split; [exact I2|]. split; [exact K2|]. split; [exact N2|]. split; [exact Hh2|]. split; [|split; [exact HL2|split]].
      * rewrite Hlk2, Elk1, length_butlastn. rewrite (half_step (length rest)) by (unfold rest; cbn; lia). lia.
      * rewrite HF2. f_equal. rewrite app_assoc, butlastn_lastn. reflexivity.
      * intros b Hb. pose proof (Hfwd b Hb) as Hb1. destruct (Fr2 b Hb1) as (A & B & C).
        assert (Hbr : b <> r1) by (intros ->; contradiction).
        split; [rewrite A; now apply Hpso|]. split; [rewrite B; now apply updlk_other|exact C].
Qed.

Lemma alloc_object_rep base lk s R R0 hl fl cl fields :
  InvA base s R hl fl cl -> KI lk s R -> Permutation R (nz fields ++ R0) -> fields <> [] ->
  exists lk' j' hl' fl' cl',
    let r := alloc_object fields s in
    InvA base (snd r) (fst r :: R0) hl' fl' cl' /\ KI lk' (snd r) (fst r :: R0) /\ fst r <> 0 /\
    lk' (fst r) = nlinks (length fields) /\ links_ok (lk' (fst r)) (m (snd r)) (fst r) /\
    obj_fields (lk' (fst r)) (m (snd r)) (fst r) = repeat 0 j' ++ fields /\
    (forall b, reach (m s) R b ->
       ps (m (snd r) b) = ps (m s b) /\ lk' b = lk b /\ reach (m (snd r)) (fst r :: R0) b).
Proof.
  intros IA K HR Hne. destruct fields as [|x f']; [congruence|]. set (fields := x :: f') in *.
  rewrite alloc_object_step by exact Hne.
  set (sl := pad 3 (lastn 3 fields)).
  assert (HP : Permutation R (nz sl ++ (nz (butlastn 3 fields) ++ R0))).
  { etransitivity; [exact HR|]. unfold sl. rewrite nz_pad, app_assoc. apply Permutation_app_tail. apply nz_split_last. }
  destruct (alloc_step base lk s R _ hl fl cl sl O IA HP K ltac:(congruence))
    as (Hfst & Hr0 & (hl1 & fl1 & cl1 & I1 & _ & _) & Hpsr & Hhr & Hpso & Hnr & Hfwd & K1).
  set (r1 := heap s) in *. set (lk1 := updlk lk r1 O) in *.
  destruct (alloc sl s) as [b s1] eqn:EA. cbn [fst snd] in *. subst b.
  assert (Elk1 : lk1 r1 = O) by apply updlk_same.
  assert (HL1 : links_ok (lk1 r1) (m s1) r1) by (rewrite Elk1; intros b [<-|[]]; exact Hr0).
  assert (HF1 : obj_fields (lk1 r1) (m s1) r1 = repeat 0 (3 - length (lastn 3 fields)) ++ (lastn 3 fields ++ [])).
  { rewrite Elk1, app_nil_r. cbn [obj_fields]. rewrite Hpsr. reflexivity. }
  assert (Hlen' : (length (butlastn 3 fields) <= length fields)%nat) by (rewrite length_butlastn; lia).
  assert (Hj1 : butlastn 3 fields <> [] -> (3 - length (lastn 3 fields))%nat = O).
  { intros Hn. rewrite length_lastn. destruct (butlastn 3 fields) eqn:E; [congruence|].
    pose proof (length_butlastn 3 fields) as L. rewrite E in L. cbn [length] in L. lia. }
  assert (I1' : InvA base s1 (r1 :: nz (butlastn 3 fields) ++ R0) hl1 fl1 cl1) by exact I1.
  destruct (store_other_rep base _ (butlastn 3 fields) r1 s1 R0 hl1 fl1 cl1 lk1 _ (lastn 3 fields ++ []) Hlen' I1' K1 Hr0 Hhr HL1 HF1 Hj1)
    as (lk2 & j2 & hl2 & fl2 & cl2 & I2 & K2 & N2 & Hh2 & Hlk2 & HL2 & HF2 & Fr2).
  exists lk2, j2, hl2, fl2, cl2. cbn zeta in *.
  split; [exact I2|]. split; [exact K2|]. split; [exact N2|]. split; [|split; [exact HL2|split]].
  - rewrite Hlk2, Elk1, length_butlastn, nlinks_half. reflexivity.
  - rewrite HF2, app_nil_r, butlastn_lastn. reflexivity.
  - intros b Hb. pose proof (Hfwd b Hb) as Hb1. destruct (Fr2 b Hb1) as (A & B & C).
    assert (Hbr : b <> r1) by (intros ->; contradiction).
    split; [rewrite A; now apply Hpso|]. split; [rewrite B; now apply updlk_other|exact C].
Qed.
