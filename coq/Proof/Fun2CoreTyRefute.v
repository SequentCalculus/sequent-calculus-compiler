(* Proof/Fun2CoreTyRefute.v (C12)
   (1) REGRESSION, former finding main-non-integer-result (fixed in /repo by 5b8c76f): `data Bar { B }
       def main(): Bar { B }` was ACCEPTED by the checker that never looked at the return type of main
       ([Check.old_check_main]); it has no capture risk and no call of main, and its translation is an ILL-TYPED Core
       program: compile_main types the operand of the final `exit` with the declared return type.  The checker of /repo
       rejects it since (Mismatch), and so does the specification Sem/FunTyping.v (rule main : i64).  The annotated form was
       the real checker's output for corpus/fun/c12_main_nonint.sc before the fix (modelrun wt-stages still compares it
       whenever a checker accepts that file).
   (2) REGRESSION, former finding call-to-main (fixed in /repo by f929eb7): the statement `accepted + Barendregt -> the
       translation is well typed` - and the statement guarded by prog_tyguard, which has no call-of-main exclusion -
       was FALSE of the translation before the fix: corpus/fun/call_main_nontail.sc is accepted, satisfies the
       Barendregt condition and the guard, and `main(0, mu~ r. ..)` against `def main(n)` has the wrong number of
       arguments.  The repaired translation of the witness is well typed (by evaluation here; by the THEOREM in
       Proof/WtExamples3.v). *)
From Coq Require Import List ZArith NArith String Bool.
From SCC Require Import Lang.FunSyn Lang.CoreSyn Model.Check Sem.FunTyping Sem.FunErase Sem.CoreCheck Model.Fun2Core
     Model.Fun2CoreTyGuard.
Import ListNotations.

Lemma old_fun2core_main_result_refuted_lemma :
  exists (src : fprog) (p : fcprog) (c : cprog),
    Check.old_check_main src = COk p /\ Check.check src = CErr EMismatch /\ has_type_b src = false /\
    annotated_fcprog p = true /\
    compile_prog p = Fun2Core.Ok c /\ wt_core c = false /\
    shadowing_risk_prog p = false /\ calls_main_prog p = false /\ barendregt p = true /\
    prog_tyguard p = false.
Proof.
  exists main_nonint_source, main_nonint_witness. eexists.
  do 9 (split; [vm_compute; reflexivity|]). vm_compute; reflexivity.
Qed.

(* the source of call_main_witness: the checked program with its annotations erased *)
Definition call_main_source : fprog := mkfprog (map (fun d => FDDef (erase_def d)) (fcpdefs call_main_witness)).
Lemma fun2core_call_main_typing_refuted_before_fix_lemma :
  exists (src : fprog) (p : fcprog) (c : cprog),
    has_type_b src = true /\ Check.check src = COk p /\ annotated_fcprog p = true /\
    compile_prog_before_fix p = Fun2Core.Ok c /\ wt_core c = false /\
    shadowing_risk_prog p = false /\ calls_main_prog p = true /\ barendregt p = true /\
    prog_tyguard p = true.
Proof.
  exists call_main_source, call_main_witness. eexists.
  do 8 (split; [vm_compute; reflexivity|]). vm_compute; reflexivity.
Qed.
Lemma call_main_typing_witness_fixed_lemma :
  exists c, compile_prog call_main_witness = Fun2Core.Ok c /\ wt_core c = true /\ calls_main_prog call_main_witness = true.
Proof.
  eexists. do 2 (split; [vm_compute; reflexivity|]). vm_compute; reflexivity.
Qed.
