(* C06, heap statements: the operations of the abstract allocator (Model/Heap.v) respect the
   agreement up to zero padding `heq` (Proof/X86HeapDefs.v) between an abstract state whose blocks
   always have three pointer slots (in practice `abs_heap F s`) and the abstract heap `hs` of the
   instrumented machine (Sem/AxHeap.v), whose blocks have at most three slots (`P3`):
     heq_share / heq_erase / heq_release / heq_dec / heq_rc_ops      reference counts;
     P3_step / P3_hrun / P3_init                                    P3 is an invariant of the machine;
     heq_alloc / heq_alloc_object                                   allocation (`acq_ok` on the a side);
     heq_load_object                                                load of a chained object, both modes.
   The pointer slots change only in `alloc`, which always writes exactly three of them; everywhere
   else the two sides differ by trailing zeros, and erase 0 / share 0 are the identity. *)
From Coq Require Import List ZArith NArith String Bool Lia.
From SCC Require Import Sem.AxHeap.
From SCC Require Import Sem.X86Sem Proof.X86Mem Proof.X86MemFrame Proof.X86MemStoreChain Proof.X86HeapDefs.
From SCC Require Model.Heap Proof.HeapMore Proof.HeapRepAlloc Proof.HeapRepLoad.
Import ListNotations.
Open Scope list_scope.
Open Scope Z_scope.

Definition meq (ma mh : Heap.mem) : Prop :=
  forall x, is_blk x -> Heap.hdr (ma x) = Heap.hdr (mh x) /\ Heap.ps (ma x) = pad3 (Heap.ps (mh x)).

Lemma heq_meq a hs : heq a hs -> meq (Heap.m a) (Heap.m hs).
Proof. intros (_ & _ & _ & H). exact H. Qed.
Lemma heq_hdr a hs x : heq a hs -> is_blk x -> Heap.hdr (Heap.m a x) = Heap.hdr (Heap.m hs x).
Proof. intros (_ & _ & _ & H) Hx. now destruct (H x Hx). Qed.
Lemma heq_ps a hs x : heq a hs -> is_blk x -> Heap.ps (Heap.m a x) = pad3 (Heap.ps (Heap.m hs x)).
Proof. intros (_ & _ & _ & H) Hx. now destruct (H x Hx). Qed.
Lemma heq_intro a hs :
  Heap.heap a = Heap.heap hs -> Heap.free a = Heap.free hs -> Heap.frontier a = Heap.frontier hs ->
  meq (Heap.m a) (Heap.m hs) -> heq a hs.
Proof. intros H1 H2 H3 H4. split; [exact H1|]. split; [exact H2|]. split; [exact H3|exact H4]. Qed.

Lemma meq_set_hdr ma mh p h : meq ma mh -> meq (Heap.set_hdr ma p h) (Heap.set_hdr mh p h).
Proof.
  intros H x Hx. destruct (H x Hx) as [A B]. unfold Heap.set_hdr, Heap.upd.
  destruct (Z.eqb_spec x p) as [->|Hne]; cbn [Heap.hdr Heap.ps]; auto.
Qed.

Lemma heq_share a hs p n : heq a hs -> (p = 0 \/ is_blk p) -> heq (Heap.share p n a) (Heap.share p n hs).
Proof.
  intros E Hp. unfold Heap.share. destruct (Z.eqb_spec p 0) as [|Hp0]; [exact E|].
  destruct Hp as [|Hb]; [contradiction|]. pose proof E as (E1 & E2 & E3 & E4).
  apply heq_intro; cbn [Heap.m Heap.heap Heap.free Heap.frontier]; auto.
  rewrite (heq_hdr a hs p E Hb). now apply meq_set_hdr.
Qed.

Lemma heq_erase a hs p : heq a hs -> (p = 0 \/ is_blk p) -> heq (Heap.erase p a) (Heap.erase p hs).
Proof.
  intros E Hp. unfold Heap.erase. destruct (Z.eqb_spec p 0) as [|Hp0]; [exact E|].
  destruct Hp as [|Hb]; [contradiction|]. pose proof E as (E1 & E2 & E3 & E4).
  rewrite (heq_hdr a hs p E Hb).
  destruct (Heap.hdr (Heap.m hs p) =? 0); apply heq_intro; cbn [Heap.m Heap.heap Heap.free Heap.frontier]; auto.
  - rewrite E2. now apply meq_set_hdr.
  - now apply meq_set_hdr.
Qed.

Lemma heq_release a hs p : heq a hs -> is_blk p -> heq (Heap.release p a) (Heap.release p hs).
Proof.
  intros E Hb. pose proof E as (E1 & E2 & E3 & E4). unfold Heap.release.
  apply heq_intro; cbn [Heap.m Heap.heap Heap.free Heap.frontier]; auto.
  rewrite E1. now apply meq_set_hdr.
Qed.

Lemma heq_dec a hs p : heq a hs -> is_blk p -> heq (Heap.dec p a) (Heap.dec p hs).
Proof.
  intros E Hb. pose proof E as (E1 & E2 & E3 & E4). unfold Heap.dec.
  apply heq_intro; cbn [Heap.m Heap.heap Heap.free Heap.frontier]; auto.
  rewrite (heq_hdr a hs p E Hb). now apply meq_set_hdr.
Qed.

Definition rc_opnd_ok (o : Heap.op) : Prop :=
  match o with Heap.OShare p _ | Heap.OErase p => p = 0 \/ is_blk p | _ => False end.

Lemma heq_rc_ops : forall ops a hs, heq a hs -> Forall rc_opnd_ok ops -> heq (hrun ops a) (hrun ops hs).
Proof.
  unfold hrun. induction ops as [|o ops IH]; intros a hs E Hops; cbn [fold_left]; [exact E|].
  inversion Hops as [|? ? Ho Hops']; subst. apply IH; [|exact Hops'].
  destruct o; cbn [rc_opnd_ok] in Ho; try contradiction; cbn [Heap.step].
  - now apply heq_share.
  - now apply heq_erase.
Qed.

(* P3 is an invariant of the instrumented machine *)
Definition machine_op (o : Heap.op) : Prop :=
  match o with Heap.OShare _ _ | Heap.OErase _ | Heap.OAllocObj _ | Heap.OLoadObj _ _ => True | _ => False end.

Lemma P3_ext hs hs' : (forall x, Heap.ps (Heap.m hs' x) = Heap.ps (Heap.m hs x)) -> P3 hs -> P3 hs'.
Proof. intros H K x. rewrite H. apply K. Qed.

Lemma P3_alloc hs P : P3 hs -> (List.length P <= 3)%nat -> P3 (snd (Heap.alloc P hs)).
Proof. intros K HP x. rewrite HeapRepAlloc.alloc_ps. destruct (x =? Heap.heap hs); [exact HP|apply K]. Qed.

Lemma len_block2 rest link : List.length (Heap.pad 2 (Heap.lastn 2 rest) ++ [link]) = 3%nat.
Proof.
  rewrite app_length, HeapRepAlloc.length_pad; [reflexivity|]. rewrite HeapRepAlloc.length_lastn. lia.
Qed.
Lemma len_block3 (fields : list Z) : List.length (Heap.pad 3 (Heap.lastn 3 fields)) = 3%nat.
Proof. rewrite HeapRepAlloc.length_pad; [reflexivity|]. rewrite HeapRepAlloc.length_lastn. lia. Qed.

Lemma P3_store_other : forall f rest link hs, P3 hs -> P3 (snd (Heap.store_other f rest link hs)).
Proof.
  induction f as [|f IH]; intros rest link hs K; [exact K|].
  destruct rest as [|x r]; [exact K|]. rewrite store_other_step by discriminate.
  apply IH. apply P3_alloc; [exact K|]. rewrite len_block2. lia.
Qed.

Lemma alloc_object_step fields a :
  fields <> [] ->
  Heap.alloc_object fields a =
  Heap.store_other (List.length fields) (Heap.butlastn 3 fields)
    (fst (Heap.alloc (Heap.pad 3 (Heap.lastn 3 fields)) a)) (snd (Heap.alloc (Heap.pad 3 (Heap.lastn 3 fields)) a)).
Proof.
  intros H. unfold Heap.alloc_object. destruct fields; [contradiction|].
  destruct (Heap.alloc _ a) as [b a1]. reflexivity.
Qed.

Lemma P3_alloc_object hs fields : P3 hs -> P3 (snd (Heap.alloc_object fields hs)).
Proof.
  intros K. destruct fields as [|x r]; [exact K|]. rewrite alloc_object_step by discriminate.
  apply P3_store_other. apply P3_alloc; [exact K|]. rewrite len_block3. lia.
Qed.

Lemma P3_step hs o : P3 hs -> machine_op o -> P3 (Heap.step hs o).
Proof.
  intros K Ho. destruct o; cbn [machine_op] in Ho; try contradiction; cbn [Heap.step].
  - eapply P3_ext; [|exact K]. intros x. apply HeapMore.share_ps.
  - eapply P3_ext; [|exact K]. intros x. apply HeapMore.erase_ps.
  - now apply P3_alloc_object.
  - eapply P3_ext; [|exact K]. intros x. apply HeapRepLoad.load_object_ps.
Qed.

Lemma P3_hrun : forall ops hs, P3 hs -> Forall machine_op ops -> P3 (hrun ops hs).
Proof.
  unfold hrun. induction ops as [|o ops IH]; intros hs K Hops; cbn [fold_left]; [exact K|].
  inversion Hops as [|? ? Ho Hops']; subst. apply IH; [|exact Hops']. now apply P3_step.
Qed.

Lemma P3_init base : P3 (Heap.init base).
Proof. intros x. cbn. lia. Qed.

(* folding an operation that ignores 0 over a padded list *)
Section FoldPad.
Variable f : Z -> Heap.st -> Heap.st.
Hypothesis f0 : forall s, f 0 s = s.

Lemma fold_pad3 l s : (List.length l <= 3)%nat ->
  fold_left (fun s c => f c s) (pad3 l) s = fold_left (fun s c => f c s) l s.
Proof.
  intros H. destruct l as [|x0 [|x1 [|x2 [|x3 r]]]]; cbn [List.length] in H; try lia;
    cbn [pad3 nth fold_left]; rewrite ?f0; reflexivity.
Qed.
Lemma fold_fields_pad3 l s : (List.length l <= 3)%nat ->
  fold_left (fun s c => f c s) (firstn 2 (pad3 l) ++ skipn 3 (pad3 l)) s =
  fold_left (fun s c => f c s) (firstn 2 l ++ skipn 3 l) s.
Proof.
  intros H. destruct l as [|x0 [|x1 [|x2 [|x3 r]]]]; cbn [List.length] in H; try lia;
    cbn [pad3 nth firstn skipn app fold_left]; rewrite ?f0; reflexivity.
Qed.
End FoldPad.

Lemma erase_0 s : Heap.erase 0 s = s. Proof. reflexivity. Qed.
Lemma share_0 n s : Heap.share 0 n s = s. Proof. reflexivity. Qed.

Lemma heq_erase_list : forall l a hs, heq a hs -> Forall (fun c => c = 0 \/ is_blk c) l ->
  heq (fold_left (fun s c => Heap.erase c s) l a) (fold_left (fun s c => Heap.erase c s) l hs).
Proof.
  induction l as [|c l IH]; intros a hs E Hl; cbn [fold_left]; [exact E|].
  inversion Hl as [|? ? Hc Hl']; subst. apply IH; [|exact Hl']. now apply heq_erase.
Qed.
Lemma heq_share_list : forall l a hs, heq a hs -> Forall (fun c => c = 0 \/ is_blk c) l ->
  heq (Heap.share_list l a) (Heap.share_list l hs).
Proof.
  unfold Heap.share_list. induction l as [|c l IH]; intros a hs E Hl; cbn [fold_left]; [exact E|].
  inversion Hl as [|? ? Hc Hl']; subst. apply IH; [|exact Hl']. now apply heq_share.
Qed.

Lemma heq_acquire a hs :
  heq a hs -> P3 hs -> is_blk (Heap.heap a) ->
  (Heap.hdr (Heap.m a (Heap.heap a)) = 0 -> is_blk (Heap.free a)) ->
  (Heap.hdr (Heap.m a (Heap.heap a)) = 0 -> Heap.hdr (Heap.m a (Heap.free a)) <> 0 ->
     Forall (fun c => c = 0 \/ is_blk c) (Heap.ps (Heap.m a (Heap.free a)))) ->
  fst (Heap.acquire a) = fst (Heap.acquire hs) /\ heq (snd (Heap.acquire a)) (snd (Heap.acquire hs)).
Proof.
  intros E K Hh Hf Hk. pose proof E as (E1 & E2 & E3 & E4). unfold Heap.acquire.
  rewrite <- E1, <- E2, <- (heq_hdr a hs _ E Hh).
  destruct (Z.eqb_spec (Heap.hdr (Heap.m a (Heap.heap a))) 0) as [H0|Hn0]; cbn [negb].
  2:{ cbn [fst snd]. split; [reflexivity|].
      apply heq_intro; cbn [Heap.m Heap.heap Heap.free Heap.frontier]; auto. now apply meq_set_hdr. }
  specialize (Hf H0). specialize (Hk H0). rewrite <- (heq_hdr a hs _ E Hf).
  destruct (Z.eqb_spec (Heap.hdr (Heap.m a (Heap.free a))) 0) as [F0|Fn0]; cbn [fst snd].
  - split; [reflexivity|]. apply heq_intro; cbn [Heap.m Heap.heap Heap.free Heap.frontier]; auto.
  - split; [reflexivity|]. specialize (Hk Fn0).
    rewrite <- (fold_pad3 (fun c s => Heap.erase c s) erase_0 (Heap.ps (Heap.m hs (Heap.free a)))) by (apply K).
    assert (EP : Heap.ps (Heap.m a (Heap.free a)) = pad3 (Heap.ps (Heap.m hs (Heap.free a)))) by (now apply heq_ps).
    rewrite <- EP. apply heq_erase_list; [|exact Hk].
    apply heq_intro; cbn [Heap.m Heap.heap Heap.free Heap.frontier]; auto. now apply meq_set_hdr.
Qed.

(* allocation of one block *)
Lemma heq_alloc a hs P : heq a hs -> P3 hs -> acq_ok a -> List.length P = 3%nat ->
  fst (Heap.alloc P a) = fst (Heap.alloc P hs) /\ heq (snd (Heap.alloc P a)) (snd (Heap.alloc P hs)) /\
  P3 (snd (Heap.alloc P hs)).
Proof.
  intros E K (A1 & A2 & A3 & A4) HP. pose proof E as (E1 & E2 & E3 & E4).
  assert (K' : P3 (snd (Heap.alloc P hs))) by (apply P3_alloc; [exact K|lia]).
  unfold Heap.alloc.
  set (A := {| Heap.m := Heap.set_ps (Heap.m a) (Heap.heap a) P; Heap.heap := Heap.heap a; Heap.free := Heap.free a; Heap.frontier := Heap.frontier a |}).
  set (B := {| Heap.m := Heap.set_ps (Heap.m hs) (Heap.heap hs) P; Heap.heap := Heap.heap hs; Heap.free := Heap.free hs; Heap.frontier := Heap.frontier hs |}).
  assert (EAB : heq A B).
  { apply heq_intro; unfold A, B; cbn [Heap.m Heap.heap Heap.free Heap.frontier]; auto.
    intros x Hx. rewrite <- E1. unfold Heap.set_ps, Heap.upd. destruct (E4 x Hx) as [X1 X2].
    destruct (Z.eqb_spec x (Heap.heap a)) as [->|Hne]; cbn [Heap.hdr Heap.ps].
    - split; [now apply heq_hdr|]. symmetry. now apply pad3_len3.
    - split; assumption. }
  assert (KB : P3 B).
  { intros x. unfold B. cbn [Heap.m]. unfold Heap.set_ps, Heap.upd. destruct (x =? Heap.heap hs); cbn [Heap.ps]; [lia|apply K]. }
  assert (HA : Heap.hdr (Heap.m A (Heap.heap A)) = Heap.hdr (Heap.m a (Heap.heap a))).
  { unfold A. cbn [Heap.m Heap.heap]. unfold Heap.set_ps. now rewrite Heap.upd_same. }
  destruct (heq_acquire A B EAB KB) as [Ef Es].
  - exact A1.
  - rewrite HA. exact A3.
  - rewrite HA. intros H0. specialize (A3 H0). unfold A. cbn [Heap.m Heap.free Heap.heap].
    unfold Heap.set_ps, Heap.upd. destruct (Z.eqb_spec (Heap.free a) (Heap.heap a)) as [e|Hne].
    + cbn [Heap.hdr]. rewrite <- e at 1. rewrite e, H0. intros X; contradiction.
    + intros Hn0. now destruct (A4 H0 Hn0).
  - split; [exact Ef|]. split; [exact Es|exact K'].
Qed.

Lemma heq_store_other : forall f rest link a hs,
  heq a hs -> P3 hs -> chain_pre f rest link a ->
  fst (Heap.store_other f rest link a) = fst (Heap.store_other f rest link hs) /\
  heq (snd (Heap.store_other f rest link a)) (snd (Heap.store_other f rest link hs)).
Proof.
  induction f as [|f IH]; intros rest link a hs E K Pre.
  - cbn. auto.
  - destruct rest as [|x r]; [cbn; auto|].
    rewrite !store_other_step by discriminate. cbn [chain_pre] in Pre. destruct Pre as [A Pre].
    destruct (heq_alloc a hs (Heap.pad 2 (Heap.lastn 2 (x :: r)) ++ [link]) E K A (len_block2 _ _)) as (Ef & Es & K').
    rewrite <- Ef. apply IH; assumption.
Qed.

Lemma heq_alloc_object a hs fields : heq a hs -> P3 hs -> alloc_object_pre fields a ->
  fst (Heap.alloc_object fields a) = fst (Heap.alloc_object fields hs) /\
  heq (snd (Heap.alloc_object fields a)) (snd (Heap.alloc_object fields hs)).
Proof.
  intros E K Pre. destruct fields as [|x r]; [cbn; auto|].
  rewrite !alloc_object_step by discriminate. unfold alloc_object_pre in Pre. destruct Pre as [A Pre].
  destruct (heq_alloc a hs (Heap.pad 3 (Heap.lastn 3 (x :: r))) E K A (len_block3 _)) as (Ef & Es & K').
  rewrite <- Ef. apply heq_store_other; assumption.
Qed.

Lemma heq_link_of a hs p : heq a hs -> is_blk p -> Heap.link_of (Heap.m a) p = Heap.link_of (Heap.m hs) p.
Proof. intros E Hp. unfold Heap.link_of. rewrite (heq_ps a hs p E Hp). now rewrite pad3_nth. Qed.

Lemma heq_load_object_release : forall k p a hs, heq a hs ->
  Forall is_blk (Heap.obj_blocks k (Heap.m a) p) ->
  heq (Heap.load_object_release k p a) (Heap.load_object_release k p hs).
Proof.
  induction k as [|k IH]; intros p a hs E Hb; cbn [Heap.load_object_release Heap.obj_blocks] in *;
    inversion Hb as [|? ? Hp Hb']; subst.
  - now apply heq_release.
  - rewrite <- (heq_link_of a hs p E Hp). apply IH; [now apply heq_release|].
    rewrite (HeapMore.obj_blocks_ext (Heap.m a)) by (intros; apply HeapMore.release_ps). exact Hb'.
Qed.

Definition slots_ok (l : list Z) : Prop := Forall (fun c => c = 0 \/ is_blk c) l.

Lemma slots_ok_fields l : slots_ok (pad3 l) -> slots_ok (firstn 2 (pad3 l) ++ skipn 3 (pad3 l)).
Proof.
  unfold slots_ok, pad3. cbn [firstn skipn app]. intros H.
  inversion H as [|? ? H0 H']; subst. inversion H' as [|? ? H1 _]; subst.
  apply Forall_cons; [exact H0|]. apply Forall_cons; [exact H1|]. apply Forall_nil.
Qed.

Lemma heq_share_walk : forall k p a hs, heq a hs -> P3 hs ->
  Forall is_blk (Heap.obj_blocks k (Heap.m a) p) ->
  (forall b, In b (Heap.obj_blocks k (Heap.m a) p) -> slots_ok (Heap.ps (Heap.m a b))) ->
  heq (Heap.share_walk k p a) (Heap.share_walk k p hs).
Proof.
  induction k as [|k IH]; intros p a hs E K Hb Hs; cbn [Heap.share_walk Heap.obj_blocks] in *;
    inversion Hb as [|? ? Hp Hb']; subst;
    pose proof (heq_ps a hs p E Hp) as EP; pose proof (Hs p ltac:(now left)) as Sp.
  - unfold Heap.share_list at 2.
    rewrite <- (fold_pad3 (fun c s => Heap.share c 1 s) (share_0 1) (Heap.ps (Heap.m hs p))) by (apply K).
    rewrite <- EP. now apply heq_share_list.
  - rewrite <- (heq_link_of a hs p E Hp).
    assert (E1 : heq (Heap.share_list (Heap.fields_of (Heap.m a) p) a) (Heap.share_list (Heap.fields_of (Heap.m hs) p) hs)).
    { unfold Heap.share_list at 2. unfold Heap.fields_of at 2.
      rewrite <- (fold_fields_pad3 (fun c s => Heap.share c 1 s) (share_0 1) (Heap.ps (Heap.m hs p))) by (apply K).
      rewrite <- EP. apply heq_share_list; [exact E|]. unfold Heap.fields_of. rewrite EP in *. now apply slots_ok_fields. }
    assert (Hps : forall x, Heap.ps (Heap.m (Heap.share_list (Heap.fields_of (Heap.m a) p) a) x) = Heap.ps (Heap.m a x))
      by (intros; apply HeapMore.share_list_ps).
    apply IH.
    + exact E1.
    + eapply P3_ext; [|exact K]. intros x. apply HeapMore.share_list_ps.
    + rewrite (HeapMore.obj_blocks_ext (Heap.m a)) by exact Hps. exact Hb'.
    + intros b Hin. rewrite (HeapMore.obj_blocks_ext (Heap.m a)) in Hin by exact Hps. rewrite Hps. apply Hs. now right.
Qed.

Lemma heq_load_object k p a hs : heq a hs -> P3 hs ->
  Forall is_blk (Heap.obj_blocks k (Heap.m a) p) ->
  (forall b, In b (Heap.obj_blocks k (Heap.m a) p) -> Forall (fun c => c = 0 \/ is_blk c) (Heap.ps (Heap.m a b))) ->
  heq (Heap.load_object k p a) (Heap.load_object k p hs).
Proof.
  intros E K Hb Hs.
  assert (Hp : is_blk p) by (destruct k; cbn [Heap.obj_blocks] in Hb; inversion Hb; assumption).
  unfold Heap.load_object. rewrite <- (heq_hdr a hs p E Hp).
  destruct (Heap.hdr (Heap.m a p) =? 0); [now apply heq_load_object_release|].
  unfold Heap.load_object_share.
  assert (Hps : forall x, Heap.ps (Heap.m (Heap.dec p a) x) = Heap.ps (Heap.m a x)) by (intros; apply HeapMore.dec_ps).
  apply heq_share_walk.
  - now apply heq_dec.
  - eapply P3_ext; [|exact K]. intros x. apply HeapMore.dec_ps.
  - rewrite (HeapMore.obj_blocks_ext (Heap.m a)) by exact Hps. exact Hb.
  - intros b Hin. rewrite (HeapMore.obj_blocks_ext (Heap.m a)) in Hin by exact Hps. rewrite Hps. now apply Hs.
Qed.

Print Assumptions heq_rc_ops.
Print Assumptions P3_hrun.
Print Assumptions heq_alloc_object.
Print Assumptions heq_load_object.
