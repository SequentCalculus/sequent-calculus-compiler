(* C09 on AArch64: the image hypotheses of the refinement theorems hold for `mk_image` of a program with
   duplicate-free labels, and `exec_to` is what the executable runner does (A64Exec.exec_to_run_chunk). *)
From Coq Require Import List ZArith NArith String Bool Lia FMapPositive.
From SCC Require Import Base.Sexp Lang.AxSyn Sem.AxSem Model.Backend Model.A64 Sem.A64Sem
     Proof.A64State Proof.A64Exec.
From SCC Require Model.Heap.
Import ListNotations.
Open Scope Z_scope.
Open Scope list_scope.

Definition label_names (cs : list acode) : list string :=
  flat_map (fun c => match c with LAB l => [l] | _ => [] end) cs.

Lemma build_code_lt : forall cs i a im j, (j < i)%positive -> PM.find j (code (build cs i a im)) = PM.find j (code im).
Proof.
  induction cs as [|c r IH]; intros i a im j Hj; cbn [build code]; auto.
  rewrite IH by lia. cbn [code]. apply PM.gso. lia.
Qed.
Lemma build_code_nth : forall cs i a im n c,
  nth_error cs n = Some c -> PM.find (padd i n) (code (build cs i a im)) = Some c.
Proof.
  induction cs as [|c r IH]; intros i a im n c0 Hn; [destruct n; discriminate|].
  destruct n as [|n]; cbn [nth_error padd] in *.
  - inversion Hn; subst. cbn [build]. rewrite build_code_lt by lia. cbn [code]. apply PM.gss.
  - cbn [build]. eapply IH; eauto.
Qed.
Lemma build_labels_old : forall cs i a im l,
  ~ In l (label_names cs) -> find_label (labels (build cs i a im)) l = find_label (labels im) l.
Proof.
  induction cs as [|c r IH]; intros i a im l Hl; cbn [build labels]; auto.
  rewrite IH.
  - cbn [labels]. destruct c; auto. cbn [find_label]. destruct (String.eqb_spec l l0); auto.
    subst. exfalso. apply Hl. cbn. now left.
  - intro H. apply Hl. cbn [label_names flat_map]. apply in_app_iff. now right.
Qed.
Lemma build_labels_at : forall cs i a im, NoDup (label_names cs) -> labels_at (build cs i a im) i cs.
Proof.
  induction cs as [|c r IH]; intros i a im Hnd n l Hn; [destruct n; discriminate|].
  assert (Hnd' : NoDup (label_names r)).
  { cbn [label_names flat_map] in Hnd. now apply Heap.NoDup_app_r in Hnd. }
  destruct n as [|n]; cbn [nth_error padd] in *.
  - inversion Hn; subst. cbn [build]. rewrite build_labels_old.
    + cbn [labels find_label]. now rewrite String.eqb_refl.
    + cbn [label_names flat_map app] in Hnd. now inversion Hnd.
  - cbn [build]. eapply IH; eauto.
Qed.
Theorem mk_image_code_labels cs :
  NoDup (label_names cs) -> code_at (mk_image cs) 1%positive cs /\ labels_at (mk_image cs) 1%positive cs.
Proof. intros H. split; [intros n c; apply build_code_nth|now apply build_labels_at]. Qed.
