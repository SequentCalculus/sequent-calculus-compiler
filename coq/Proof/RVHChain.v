(* C08, heap statements: the one-block relation of Proof/RVHSimRel.v is the chain relation of Proof/RVKSimRel.v
   restricted to SMALL values (objects and closure environments of at most three fields, hereditarily).
   For n <= 3 fields the chain of Proof/HRep.v has no continuation block (`Heap.nlinks n = 0`) and its last n slot
   addresses are the `saddrs` of the one block, so the two representations say the same thing word for word.
   The one-block simulation theorems are obtained from the chain versions through `hrel_chain` / `hrel_block`;
   what is left to show there is that the values a statement produces are small. *)
From Coq Require Import List ZArith NArith String Bool Lia FMapPositive.
From SCC Require Import Base.Sexp Lang.AxSyn Sem.AxSem Sem.AxHeap Model.Backend Model.RV Sem.RVSem
     Model.Linearize Model.LinCheck Proof.RVSimAddr Proof.RVSimRel Proof.RVHeapAbs Proof.RVHDefs Proof.RVHMem Proof.RVHSimRel
     Proof.RVHLayout Proof.RVHFrag Proof.RVHClo.
From SCC Require Model.Heap Proof.AxHeapSubst Proof.X86HeapDefs Proof.HRep Proof.RVKFrag Proof.RVKClo Proof.RVKSimRel.
Import ListNotations.
Open Scope Z_scope.
Open Scope list_scope.

Inductive small : value -> Prop :=
| sm_int z : small (VInt z)
| sm_obj tn tag fs : (List.length fs <= 3)%nat -> Forall small fs -> small (VObj tn tag fs)
| sm_clo tn cls ce : (List.length ce <= 3)%nat -> Forall small (map snd ce) -> small (VClo tn cls ce).

Definition small_env (he : henv) : Prop := Forall (fun en => small (h_val en)) he.

Lemma small_env_app he1 he2 : small_env (he1 ++ he2) <-> small_env he1 /\ small_env he2.
Proof. apply Forall_app. Qed.
Lemma small_env_attach (e : env) : forall ps, Forall small (map snd e) -> small_env (attach e ps).
Proof.
  unfold small_env. induction e as [|[x v] e IH]; intros ps H; [constructor|].
  inversion H; subst. destruct ps; constructor; auto.
Qed.
Lemma small_env_hsubst he re he' : hsubst he re = Some he' -> small_env he -> small_env he'.
Proof.
  unfold small_env. rewrite !Forall_forall. intros H SM en' Hin.
  destruct (AxHeapSubst.hsubst_entries he re he' H en' Hin) as (en & Hen & -> & _). exact (SM en Hen).
Qed.
Lemma small_env_vals he : small_env he -> Forall small (map h_val he).
Proof. unfold small_env. rewrite Forall_map. auto. Qed.

(* a chain of no links is one block *)
Lemma nlinks_small n : (n <= 3)%nat -> Heap.nlinks n = O.
Proof. intros H. unfold Heap.nlinks. destruct (Nat.leb_spec n 3); [reflexivity|lia]. Qed.
Lemma waddrs0_skipn w q n : (n <= 3)%nat ->
  skipn (List.length (X86HeapDefs.waddrs 0 w q) - n) (X86HeapDefs.waddrs 0 w q) = saddrs q n.
Proof. intros H. destruct n as [|[|[|[|n]]]]; [reflexivity..|lia]. Qed.
Lemma waddrs0_nth w q j : (j < 3)%nat -> nth j (X86HeapDefs.waddrs 0 w q) 0 = q + 16 * Z.of_nat (j + 1).
Proof. intros H. destruct j as [|[|[|j]]]; [reflexivity..|lia]. Qed.

Section Rep.
Variable types : list tydecl.
Variables CLO CLO' : Z -> ident -> list clause -> ctx -> Prop.
Hypothesis SUB : forall a tn cls cx, CLO a tn cls cx -> CLO' a tn cls cx.

Lemma xrep_chain_mut w :
  (forall v q a, xrep types CLO w v q a -> HRep.xrep types CLO' jump_length RVKSimRel.any_int w v q a /\ small v) /\
  (forall fs q, xflds types CLO w fs q ->
     HRep.xflds types CLO' jump_length RVKSimRel.any_int w fs q /\ (List.length fs <= 3)%nat /\ Forall small fs) /\
  (forall vs al, xreps types CLO w vs al -> HRep.xreps types CLO' jump_length RVKSimRel.any_int w vs al /\ Forall small vs).
Proof.
  apply xrep_mutind.
  - intros z. split; constructor. exact I.
  - intros tn tag fs q a T _ (XF & L & SM). split; constructor; assumption.
  - intros tn cls ce q a C _ (XF & L & SM). rewrite map_length in L. split; constructor; auto.
  - split; [constructor|split; [cbn; lia|constructor]].
  - intros fs q NE LE BQ Z0 _ (XS & SM). split; [|auto].
    apply HRep.xf_cons; [exact NE|rewrite (nlinks_small _ LE)..].
    + repeat constructor. exact BQ.
    + intros j Hj. cbn [X86HeapDefs.waddrs List.length] in Hj. rewrite waddrs0_nth by lia. apply Z0. lia.
    + rewrite waddrs0_skipn by exact LE. exact XS.
  - split; constructor.
  - intros v vs a al _ (X & S1) _ (XS & S2). split; constructor; assumption.
Qed.

Lemma xrep_block_mut w :
  (forall v q a, HRep.xrep types CLO jump_length RVKSimRel.any_int w v q a -> small v -> xrep types CLO' w v q a) /\
  (forall fs q, HRep.xflds types CLO jump_length RVKSimRel.any_int w fs q ->
     (List.length fs <= 3)%nat -> Forall small fs -> xflds types CLO' w fs q) /\
  (forall vs al, HRep.xreps types CLO jump_length RVKSimRel.any_int w vs al -> Forall small vs -> xreps types CLO' w vs al).
Proof.
  apply HRep.xrep_mutind.
  - intros z _ _. constructor.
  - intros tn tag fs q a T _ IH SM. inversion SM; subst. constructor; auto.
  - intros tn cls ce q a C _ IH SM. inversion SM; subst. constructor; auto. apply IH; [now rewrite map_length|assumption].
  - intros _ _. constructor.
  - intros fs q NE BQ Z0 _ IH LE SM. rewrite (nlinks_small _ LE) in *. apply xf_cons; auto.
    + now inversion BQ.
    + intros j Hj. rewrite <- waddrs0_nth with (w := w) by lia. apply Z0. cbn [X86HeapDefs.waddrs List.length]. lia.
    + rewrite <- waddrs0_skipn with (w := w) by exact LE. exact (IH SM).
  - intros _. constructor.
  - intros v vs a al _ IH1 _ IH2 SM. inversion SM; subst. constructor; auto.
Qed.


Lemma hvrep_chain s i b v q : hvrep types CLO s i b v q -> RVKSimRel.hvrep types CLO' s i b v q /\ small v.
Proof.
  intros [b0 z q0 t A B T L|b0 v0 q0 a t1 t2 A K1 K2 T1 T2 L1 L2 X].
  - split; [eapply RVKSimRel.hv_int; eauto|constructor].
  - destruct (proj1 (xrep_chain_mut _) _ _ _ X) as [X' SM]. split; [eapply RVKSimRel.hv_ptr; eauto|exact SM].
Qed.
Lemma hvrep_block s i b v q : RVKSimRel.hvrep types CLO s i b v q -> small v -> hvrep types CLO' s i b v q.
Proof.
  intros [b0 z q0 t A B T L|b0 v0 q0 a t1 t2 A K1 K2 T1 T2 L1 L2 X] SM.
  - eapply hv_int; eauto.
  - eapply hv_ptr; eauto. exact (proj1 (xrep_block_mut _) _ _ _ X SM).
Qed.

Lemma hrel_chain c he hs s : hrel types CLO c he hs s -> RVKSimRel.hrel types CLO' c he hs s /\ small_env he.
Proof.
  intros [A B C D E F]. split.
  - split; auto. intros i x v q Hi. destruct (F i x v q Hi) as (b & Hb & V). exists b. split; [exact Hb|exact (proj1 (hvrep_chain _ _ _ _ _ V))].
  - apply Forall_forall. intros [[x v] q] Hin. apply In_nth_error in Hin as (i & Hi).
    destruct (F i x v q Hi) as (b & _ & V). exact (proj2 (hvrep_chain _ _ _ _ _ V)).
Qed.
Lemma hrel_block c he hs s : RVKSimRel.hrel types CLO c he hs s -> small_env he -> hrel types CLO' c he hs s.
Proof.
  intros [A B C D E F] SM. split; auto. intros i x v q Hi. destruct (F i x v q Hi) as (b & Hb & V). exists b. split; [exact Hb|].
  apply hvrep_block; [exact V|]. unfold small_env in SM. rewrite Forall_forall in SM. exact (SM _ (nth_error_In _ _ Hi)).
Qed.
End Rep.

(* the same `CLO` on both sides *)
Lemma hrel_small_iff types CLO c he hs s :
  hrel types CLO c he hs s <-> RVKSimRel.hrel types CLO c he hs s /\ small_env he.
Proof.
  split; [apply hrel_chain; auto|]. intros [R SM]. exact (hrel_block types CLO CLO (fun _ _ _ _ H => H) c he hs s R SM).
Qed.
Lemma xflds_small_iff types CLO w fs q :
  xflds types CLO w fs q <->
  HRep.xflds types CLO jump_length RVKSimRel.any_int w fs q /\ (List.length fs <= 3)%nat /\ Forall small fs.
Proof.
  split; [apply (proj1 (proj2 (xrep_chain_mut types CLO CLO (fun _ _ _ _ H => H) w)))|].
  intros (X & L & SM). exact (proj1 (proj2 (xrep_block_mut types CLO CLO (fun _ _ _ _ H => H) w)) fs q X L SM).
Qed.

(* closures: `hclo_ok` of Proof/RVHClo.v and of Proof/RVKClo.v *)
(* the landing point of the one-block version is unconditional *)
Lemma hclo_chain im p stop a tn cls cx : hclo_ok im p stop a tn cls cx -> RVKClo.hclo_ok im p stop a tn cls cx.
Proof.
  intros (CO & RA & EV & H). split; [exact CO|]. split; [exact RA|]. split; [exact EV|].
  intros k c Hk. destruct (H k c Hk) as (i & pcc & lcl & cl & lcb & cb & lcb' & IX & SM & RF & LD & BD & PL & LC & AN & FR).
  exists pcc, lcl, cl, lcb, cb, lcb'. repeat (split; [assumption|]).
  split; [exact (stmt_h_k _ FR)|]. split; [exact SM|]. intros _. exists i. split; [exact IX|exact RF].
Qed.
(* clause bodies of the fragment emit an instruction (`cs_has_nz`), so the conditional landing point exists *)
Lemma hclo_block im p stop a tn cls cx : clauses_h cls = true -> RVKClo.hclo_ok im p stop a tn cls cx -> hclo_ok im p stop a tn cls cx.
Proof.
  intros CH (CO & RA & EV & H). split; [exact CO|]. split; [exact RA|]. split; [exact EV|].
  intros k c Hk. destruct (H k c Hk) as (pcc & lcl & cl & lcb & cb & lcb' & LD & BD & PL & LC & AN & _ & SM & LAND).
  assert (FR : stmt_h (cl_body c) = true).
  { unfold clauses_h in CH. rewrite forallb_forall in CH. specialize (CH c (nth_error_In _ _ Hk)). now apply andb_true_iff in CH as [_ CH]. }
  destruct (LAND (has_nz_app_r _ _ (cs_has_nz (ptypes p) _ _ _ _ _ FR BD))) as (i & IX & RF).
  exists i, pcc, lcl, cl, lcb, cb, lcb'. repeat (split; [assumption|]). exact FR.
Qed.
