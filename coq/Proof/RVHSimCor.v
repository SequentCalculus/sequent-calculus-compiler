(* C08, heap statements, the fragment `h_frag` (objects and closure environments of at most three fields, every Switch
   has a clause, no print): the induction over the fuel of the instrumented machine and the program-level theorems.
   `hsim_exec`: the one-block relation implies the chain relation (Proof/RVHChain.v), `hclo_ok` of Proof/RVHClo.v implies
   that of Proof/RVKClo.v, and the conclusion (`rfin` of Proof/RVSimAddr.v) does not mention the relation, so the theorem
   is the instance of Proof/RVKSimProg.hsim_exec.  At program level the fragment predicate is not needed: each theorem is
   the one of Proof/RVKSimTop.v / RVKSimCor.v for all statement forms with a superfluous hypothesis. *)
From Coq Require Import List ZArith NArith String Bool Lia FMapPositive.
From SCC Require Import Base.Sexp Lang.AxSyn Sem.AxSem Sem.AxHeap Model.Backend Model.RV Sem.RVSem Sem.RVWf
     Model.Linearize Model.LinCheck Model.Capacity Proof.LinBasics Proof.LinearizeProof Proof.RVSel Proof.RVSimAddr Proof.RVSimRel Proof.RVSimTop
     Proof.RVHSimRel Proof.RVHLayout Proof.RVHFrag Proof.RVHClo Proof.X86HAnn Proof.RVHSimProgA Proof.RVHChain Proof.RVHSimTop.
From SCC Require Proof.X86SimProg Proof.RVKFrag Proof.RVKClo Proof.RVKSimRel Proof.RVKSimProgA Proof.RVKSimProg Proof.RVKSimTop Proof.RVKSimCor.
Module XPg := SCC.Proof.X86SimProg.
Import ListNotations.
Open Scope Z_scope.
Open Scope list_scope.

Lemma hsim_exec im p stop :
  rimg_ok im -> fwd_ok im ->
  (forall pc a, PM.find pc (addr_of im) = Some a -> a mod 2 = 0) ->
  (forall pc a, PM.find pc (addr_of im) = Some a -> a < 4611686018427387904 - 32) ->
  find_label (labels im) "cleanup" = Some stop ->
  (exists l, PM.find stop (code im) = Some (LAB l)) -> PM.find (Pos.succ stop) (code im) = None ->
  (forall d, In d (pdefs p) ->
    exists pcd lcd cd lcd', find_label (labels im) (show_ident (dname d) +++ "_") = Some pcd /\
      (exists a, PM.find pcd (code im) = Some (LAB (show_ident (dname d) +++ "_")) /\ PM.find pcd (addr_of im) = Some a) /\
      rcs (ptypes p) (dbody d) (dctx d) lcd = Ok (cd, lcd') /\ placed im (Pos.succ pcd) cd) ->
  lin_check_prog p = true -> ann_check_prog p = true ->
  (forall d, In d (pdefs p) -> stmt_h (dbody d) = true) ->
  forall fuel s c he hs tr st pc code lc lc',
  stmt_h s = true -> lin_check (sigs_of p) c s = true -> ann_check c s = true ->
  rcs (ptypes p) s c lc = Ok (code, lc') -> placed im pc code ->
  hrel (ptypes p) (hclo_ok im p stop) c he hs st -> map h_id he = vars c -> hinv p he hs s ->
  X86SimProg.not_oof (fst (fst (hexec fuel p (mkhc he hs s) [] tr))) ->
  rfin im stop pc st (fst (fst (hexec fuel p (mkhc he hs s) [] tr))).
Proof.
  intros IMG FWD EVEN SMALL STOPL STOPC ENDC DEFS LP ANN FRG fuel s c he hs tr st pc code lc lc' FR LC AN CS PL R NM HI G.
  assert (FRG' : forall d, In d (pdefs p) -> RVKFrag.stmt_k (dbody d) = true).
  { intros d Hd. exact (stmt_h_k _ (FRG d Hd)). }
  eapply proj1.
  eapply (RVKSimProg.hsim_exec im p stop IMG FWD EVEN SMALL STOPL STOPC ENDC DEFS LP ANN FRG' fuel s c he hs tr st pc code lc lc');
    [exact (stmt_h_k _ FR)|exact LC|exact AN|exact CS|exact PL| |exact NM|exact (hinv_chain _ _ _ _ HI)|exact G].
  exact (proj1 (hrel_chain _ _ _ (hclo_chain im p stop) _ _ _ _ R)).
Qed.

Theorem rv_codegen_simulates p lc cs n lc' args fuel o :
  h_frag p = true -> SimFrag.entry_int p = true -> lin_check_prog p = true -> ann_check_prog p = true ->
  rv_compile p lc = Ok (cs, n, lc') -> asm_wf cs = None -> code_small cs = true ->
  Nat.leb (main_arity p) 14 = true -> List.length args = n -> heap_fits p args ->
  run_linear fuel p args = o -> snd o <> OOutOfFuel ->
  exists outer inner, fst (run_rv outer inner cs args) = o.
Proof. intros _. apply RVKSimTop.rv_codegen_simulates_all. Qed.

Corollary rv_codegen_correct_heap p lc cs n lc' args fuel o :
  h_frag p = true -> SimFrag.entry_int p = true -> lin_check_prog p = true -> ann_check_prog p = true ->
  rv_compile p lc = Ok (cs, n, lc') -> asm_wf cs = None -> code_small cs = true ->
  Nat.leb (main_arity p) 14 = true -> heap_fits p args ->
  run_linear fuel p args = o -> SimFrag.good o ->
  exists outer inner, fst (run_rv outer inner cs args) = o.
Proof. intros _. apply RVKSimCor.rv_codegen_correct_heap. Qed.

(* the code generator applied to the output of the linearization pass *)
Corollary rv_codegen_correct_linearized a lc cs n lc' args fuel o :
  prog_ok a = true ->
  h_frag (linearize a) = true -> SimFrag.entry_int (linearize a) = true ->
  rv_compile (linearize a) lc = Ok (cs, n, lc') -> asm_wf cs = None -> code_small cs = true ->
  Nat.leb (main_arity (linearize a)) 14 = true -> heap_fits (linearize a) args ->
  run_linear fuel (linearize a) args = o -> SimFrag.good o ->
  exists outer inner, fst (run_rv outer inner cs args) = o.
Proof. intros OK _. exact (RVKSimCor.rv_codegen_correct_linearized a lc cs n lc' args fuel o OK). Qed.
