(* Proof/Fun2CoreFLa  -  the environment and continuation invariants of the forward simulation
   (see Proof/Fun2CoreRel.v for the value relation) and the lemmas about them.
   The simulation proof is cut into FLa (invariants), FLb (argument lists of bindings, sharing), FLc (statement of
   the fundamental lemma, default producers, argument lists), FLd (calls, clause selection), FLe (variables,
   literals, operators, exit, parentheses), FLf (print, conditionals), FLg (guard_capture, let, label, goto),
   FLh (calls, constructors, case, new, destructors; the assembly [fl_all]); Fun2CoreProg.v has the theorem.

     erel n G S e ce     every binding of the scope G whose name satisfies S is bound in the source
                         environment e and in the Core environment ce to related values ([brel n]) of
                         the kind the scope says
     cont_shape c cont   the syntactic consumers the translation hands down, by the kind c (codata?) of the
                         values they receive
     KS n c k cont ce    the source continuation k is what the syntactic consumer cont (for values of
                         kind c) means in ce:
                           cont = mu~ x.s   for every j < n and data value v ~_j pv, in EVERY
                                            environment that agrees with (x,pv)::ce on the free
                                            variables of s, running s simulates FRet k v
                                            (this covers the closure, the machine continuation and
                                            the LIFTED definition share_f_n, whose environment is
                                            just the parameters)
                           cont = D(args)   (a destructor consumer, codata kinds) in every ce' that agrees with ce
                                            on its free variables, evaluating the arguments reaches a
                                            consumer value that is Kk-related to k
                           otherwise        in every ce' that agrees with ce on the free variables
                                            of cont, the consumer value of cont is Kk-related to k
     CK n c k cont ce S  the free bindings of cont whose names satisfy S are bound in ce with the
                         right kind, and if ALL names of cont satisfy S then KS n c k cont ce
                         (S = the names free in the statement being run: a continuation that the
                         statement has dropped - exit, goto - need not mean anything any more)
     rreach r r'         the Core machine gets from the step result r to r' by itself (steps without a
                         source counterpart); sim is closed under it ([sim_rreach]) *)
From Coq Require Import List ZArith NArith String Bool Lia.
From SCC Require Import Proof.CoreInd.
From SCC Require Import Base.Sexp Lang.SynUtil Lang.FunSyn Lang.FunTy Lang.CoreSyn.
From SCC Require Import Sem.AxSem Sem.CoreSem Sem.FunSem Model.Fun2Core.
From SCC Require Import Proof.Fun2CoreProof Proof.Fun2CoreSim Proof.Fun2CoreTfv Proof.Fun2CoreInv Proof.Fun2CoreUB Proof.Fun2CoreRel.
Import ListNotations.
Open Scope string_scope.
Open Scope list_scope.

Definition fkind (b : fbv) : cchi := match b with FbP _ => CPrd | FbK _ => CCns end.
Definition ckind (b : bval) : cchi := match b with BP _ => CPrd | BK _ => CCns end.
Definition cnames (bs : bset) : list cident := map cbvar bs.
Definition agree (S : list cident) (ce ce' : cenv) : Prop := forall x, In x S -> clookup ce' x = clookup ce x.

Lemma agree_refl : forall S ce, agree S ce ce.
Proof. intros S ce x _. reflexivity. Qed.
Lemma in_cnames : forall bb bs, In bb bs -> In (cbvar bb) (cnames bs).
Proof. intros bb bs H. unfold cnames. apply in_map. exact H. Qed.
Lemma in_cnames_inv : forall x bs, In x (cnames bs) -> exists bb, In bb bs /\ cbvar bb = x.
Proof. intros x bs H. unfold cnames in H. apply in_map_iff in H. destruct H as [bb [E Hin]]. eauto. Qed.

Lemma flookup_cons : forall x b e y, flookup ((x, b) :: e) y = if String.eqb x y then Some b else flookup e y.
Proof. reflexivity. Qed.
Lemma clookup_cons : forall x b e y, clookup ((x, b) :: e) y = if cident_eqb x y then Some b else clookup e y.
Proof. reflexivity. Qed.
Lemma new_id_neq : forall a b, new_id a <> new_id b -> a <> b.
Proof. intros a b H E. apply H. subst. reflexivity. Qed.

Section FLa.
  Variable p : fcprog.
  Variable cp : cprog.
  Hypothesis Hcod : cpcodata cp = codata_of p.

  Lemma is_codata_compile : forall ty, is_codata cp (compile_ty ty) = f_is_codata p ty.
  Proof.
    intros ty. rewrite <- ty_is_codata_compile. unfold is_codata, ty_is_codata. rewrite Hcod. reflexivity.
  Qed.

  Lemma brel_kind : forall n b b', brel p cp n b b' -> fkind b = ckind b'.
  Proof. intros n [v|k] [pv|kv] H; simpl in *; try contradiction; reflexivity. Qed.

  (* what an environment may bind at a type of kind c: a value of that kind, or a continuation *)
  Definition vok (c : bool) (b : fbv) : Prop := match b with FbP v => vkind c v | FbK _ => True end.
  Definition erel (n : nat) (G : list cbinding) (S : cident -> Prop) (e : fenv) (ce : cenv) : Prop :=
    forall bb, gl G (cbvar bb) = Some bb -> S (cbvar bb) ->
      exists x b b', cbvar bb = new_id x /\ flookup e x = Some b /\ clookup ce (new_id x) = Some b' /\
                     brel p cp n b b' /\ vok (is_codata cp (cbty bb)) b /\ fkind b = cbchi bb.

  Lemma erel_weaken : forall n n' G (S S' : cident -> Prop) e ce,
    erel n G S e ce -> (forall x, S' x -> S x) -> (n' <= n)%nat -> erel n' G S' e ce.
  Proof.
    intros n n' G S S' e ce H HS Hle bb Hg Hs. destruct (H bb Hg (HS _ Hs)) as [x [b [b' [E1 [E2 [E3 [E4 [E5 E6]]]]]]]].
    exists x, b, b'. repeat split; auto. eapply brel_mono; eauto.
  Qed.
  Lemma erel_mono : forall n n' G (S : cident -> Prop) e ce, erel n G S e ce -> (n' <= n)%nat -> erel n' G S e ce.
  Proof. intros n n' G S e ce H Hle. eapply erel_weaken; [exact H | | exact Hle]. intros x Hx. exact Hx. Qed.
  Lemma erel_agree : forall n G (S S' : cident -> Prop) e ce ce',
    erel n G S e ce -> (forall x, S' x -> S x /\ clookup ce' x = clookup ce x) -> erel n G S' e ce'.
  Proof.
    intros n G S S' e ce ce' H HS bb Hg Hs. destruct (HS _ Hs) as [Hs1 Ha].
    destruct (H bb Hg Hs1) as [x [b [b' [E1 [E2 [E3 [E4 [E5 E6]]]]]]]].
    exists x, b, b'. repeat split; auto. rewrite <- E1, Ha, E1. exact E3.
  Qed.
  Lemma erel_var : forall n G (S : cident -> Prop) e ce v ty,
    erel n G S e ce -> gl G (new_id v) = Some (mkcb (new_id v) CPrd ty) -> S (new_id v) ->
    exists val pv, flookup e v = Some (FbP val) /\ clookup ce (new_id v) = Some (BP pv) /\
                   vrel p cp n val pv /\ vkind (is_codata cp ty) val.
  Proof.
    intros n G S e ce v ty H Hg Hs. destruct (H (mkcb (new_id v) CPrd ty) Hg Hs) as [x [b [b' [E1 [E2 [E3 [E4 [E5 E6]]]]]]]].
    simpl in E1. apply new_id_inj in E1. subst x. simpl in E6.
    destruct b as [val|k]; [|discriminate]. destruct b' as [pv|kv]; [|contradiction].
    exists val, pv. auto.
  Qed.
  Lemma erel_covar : forall n G (S : cident -> Prop) e ce v ty,
    erel n G S e ce -> gl G (new_id v) = Some (mkcb (new_id v) CCns ty) -> S (new_id v) ->
    exists k kv, flookup e v = Some (FbK k) /\ clookup ce (new_id v) = Some (BK kv) /\ Kb p cp n k kv.
  Proof.
    intros n G S e ce v ty H Hg Hs. destruct (H (mkcb (new_id v) CCns ty) Hg Hs) as [x [b [b' [E1 [E2 [E3 [E4 [E5 E6]]]]]]]].
    simpl in E1. apply new_id_inj in E1. subst x. simpl in E6.
    destruct b as [val|k]; [discriminate|]. destruct b' as [pv|kv]; [contradiction|].
    exists k, kv. auto.
  Qed.
  (* one more source binder *)
  Lemma erel_bind1 : forall n G (S S' : cident -> Prop) e ce v chi ty b b',
    erel n G S e ce -> brel p cp n b b' -> vok (is_codata cp ty) b -> fkind b = chi ->
    (forall x, S' x -> x <> new_id v -> S x) ->
    erel n (mkcb (new_id v) chi ty :: G) S' ((v, b) :: e) ((new_id v, b') :: ce).
  Proof.
    intros n G S S' e ce v chi ty b b' H Hb Hd Hk HS bb Hg Hs. rewrite gl_cons in Hg. simpl in Hg.
    destruct (cident_eqb (new_id v) (cbvar bb)) eqn:E.
    - injection Hg as Hg. subst bb. exists v, b, b'. rewrite flookup_cons, String.eqb_refl.
      rewrite clookup_cons, cident_eqb_refl. simpl. repeat split; auto.
    - apply cident_eqb_neq in E. assert (Hne : cbvar bb <> new_id v) by congruence.
      destruct (H bb Hg (HS _ Hs Hne)) as [x [b0 [b0' [E1 [E2 [E3 [E4 [E5 E6]]]]]]]].
      exists x, b0, b0'. rewrite flookup_cons, clookup_cons.
      assert (Hvx : String.eqb v x = false).
      { apply String.eqb_neq. intros Ev. subst x. apply Hne. exact E1. }
      rewrite Hvx, cid_eqb_new_id, Hvx. repeat split; auto.
  Qed.
  (* one more Core-only (generated) binder *)
  Lemma erel_gen : forall n G (S S' : cident -> Prop) e ce g b',
    erel n G S e ce -> (forall bb, In bb G -> cbvar bb <> g) -> (forall x, S' x -> x <> g -> S x) ->
    erel n G S' e ((g, b') :: ce).
  Proof.
    intros n G S S' e ce g b' H Hg HS bb Hgl Hs.
    assert (Hne : cbvar bb <> g) by (apply Hg; eapply gl_In; exact Hgl).
    destruct (H bb Hgl (HS _ Hs Hne)) as [x [b0 [b0' [E1 [E2 [E3 [E4 [E5 E6]]]]]]]].
    exists x, b0, b0'. rewrite clookup_cons.
    assert (Hgx : cident_eqb g (new_id x) = false) by (apply cident_eqb_neq; congruence).
    rewrite Hgx. repeat split; auto.
  Qed.
  (* a whole context (clause parameters, definition parameters) *)
  Lemma erel_binds : forall n G ctx (S' P : cident -> Prop) vals vals' e ce e1,
    Forall2 (brel p cp n) vals vals' ->
    Forall2 (fun v b => vok (is_codata cp (compile_ty (fbty b))) v) vals ctx ->
    map fkind vals = map (fun b => compile_chi (fbchi b)) ctx ->
    fbind (fvars ctx) vals e = Some e1 ->
    erel n G P e ce ->
    (forall x, S' x -> ~ In x (cvars (compile_ctx ctx)) -> P x) ->
    exists ce1, cbind (cvars (compile_ctx ctx)) vals' ce = Some ce1 /\
                erel n (compile_ctx ctx ++ G) S' e1 ce1 /\
                (forall x, ~ In x (cvars (compile_ctx ctx)) -> clookup ce1 x = clookup ce x).
  Proof.
    intros n G. induction ctx as [|cb r IH]; intros S' P vals vals' e ce e1 Hv Hd Hk Hb He HP.
    - destruct vals as [|v vr]; [|discriminate]. inversion Hv; subst. simpl in Hb. injection Hb as Hb. subst e1.
      exists ce. split; [reflexivity|]. split; [|reflexivity].
      eapply erel_weaken; [exact He | | apply Nat.le_refl]. intros x Hx. apply HP; [exact Hx | exact (fun H => H)].
    - destruct vals as [|v vr]; [discriminate|]. inversion Hv as [|? v' ? vr' Hv1 Hv2]; subst.
      inversion Hd as [|? ? ? ? Hd1 Hd2]; subst. simpl in Hk. injection Hk as Hk1 Hk2.
      simpl in Hb. destruct (fbind (fvars r) vr e) as [er|] eqn:Er; [|discriminate]. injection Hb as Hb. subst e1.
      destruct (IH (fun x => S' x /\ x <> new_id (fbvar cb)) P vr vr' e ce er Hv2 Hd2 Hk2 Er He) as [cer [Hc [Hr Hl]]].
      { intros x [Hx Hne] Hn. apply HP; [exact Hx|]. unfold cvars, compile_ctx. simpl. intros [E|Hin]; [congruence | exact (Hn Hin)]. }
      unfold cvars, compile_ctx in *. simpl. rewrite Hc. eexists. split; [reflexivity|]. split.
      + change (compile_binding cb :: map compile_binding r ++ G) with
          (mkcb (new_id (fbvar cb)) (compile_chi (fbchi cb)) (compile_ty (fbty cb)) :: (map compile_binding r ++ G)).
        eapply erel_bind1; [exact Hr | exact Hv1 | exact Hd1 | exact Hk1 | intros x Hx Hne; split; assumption].
      + intros x Hn. rewrite clookup_cons.
        assert (Hx : cident_eqb (new_id (fbvar cb)) x = false).
        { apply cident_eqb_neq. intros E. apply Hn. left. exact E. }
        rewrite Hx. apply Hl. intros Hin. apply Hn. right. exact Hin.
  Qed.

  Definition rreach (r r' : sres) : Prop :=
    exists k, forall m out, crun_res cp (k + m) r out = crun_res cp m r' out.
  Lemma rreach_refl : forall r, rreach r r.
  Proof. intros r. exists 0%nat. reflexivity. Qed.
  Lemma rreach_step : forall c r', rreach (cstep cp c) r' -> rreach (SNext c) r'.
  Proof.
    intros c r' [k H]. exists (S k). intros m out. simpl plus.
    change (crun (S (k + m)) cp c out = crun_res cp m r' out). rewrite crun_S. apply H.
  Qed.
  Lemma rreach_trans : forall r1 r2 r3, rreach r1 r2 -> rreach r2 r3 -> rreach r1 r3.
  Proof.
    intros r1 r2 r3 [k1 H1] [k2 H2]. exists (k1 + k2)%nat. intros m out. rewrite <- Nat.add_assoc, H1. apply H2.
  Qed.
  Lemma sim_rreach : forall n cf r r', sim p cp n cf r' -> rreach r r' -> sim p cp n cf r.
  Proof.
    intros n cf r r' H [k Hk] out o Hr F. destruct (H out o Hr F) as [m Hm]. exists (k + m)%nat. rewrite Hk. exact Hm.
  Qed.

  (* the shapes of the continuations the translation hands down, by the KIND (c = codata?) of the values
     they receive: covariables at both kinds; mu~ and case consumers at data kinds only; destructor
     consumers at codata kinds only *)
  Definition cont_shape (c : bool) (cont : cterm) : Prop :=
    match cont with
    | CXVar _ _ _ => True
    | CXCase _ _ ty => c = false /\ is_codata cp ty = false
    | CMu ch v _ ty => c = false /\ ch = CCns /\ is_codata cp ty = false /\ ~ In v (cnames (fvt cont))
    | CXtor _ _ _ _ => c = true
    | _ => False
    end.
  Lemma cont_shape_cns : forall c cont, cont_shape c cont -> cont_cns cont.
  Proof. intros c cont H. destruct cont; simpl in *; try exact I. tauto. Qed.

  Definition KS (n : nat) (c : bool) (k : fkont) (cont : cterm) (ce : cenv) : Prop :=
    match cont with
    | CMu _ x s _ =>
        forall j, (j < n)%nat -> forall v pv, dval v -> vrel p cp j v pv ->
        forall env, agree (cnames (fvs s)) ((x, BP pv) :: ce) env ->
        sim p cp j (FRet k v) (SNext (Run s env))
    | CXtor _ tag args _ =>
        forall ce', agree (cnames (fvt cont)) ce ce' -> forall m,
        exists kv, rreach (start_args cp args ce' (FinXtorK tag m)) (SNext (App m (BK kv))) /\ Kk p cp n c k kv
    | _ =>
        forall ce', agree (cnames (fvt cont)) ce ce' ->
        exists kv, khead cont ce' = inl kv /\ Kk p cp n c k kv
    end.
  Definition kinds_on (cont : cterm) (ce : cenv) (S : cident -> Prop) : Prop :=
    forall bb, In bb (fvt cont) -> S (cbvar bb) ->
      exists b', clookup ce (cbvar bb) = Some b' /\ ckind b' = cbchi bb.
  Definition CK (n : nat) (c : bool) (k : fkont) (cont : cterm) (ce : cenv) (S : cident -> Prop) : Prop :=
    kinds_on cont ce S /\ ((forall x, In x (cnames (fvt cont)) -> S x) -> KS n c k cont ce).

  Lemma mu_body_names : forall c x s ty y, In y (cnames (fvs s)) -> y <> x ->
    In y (cnames (fvt (CMu c x s ty))).
  Proof.
    intros c x s ty y Hy Hne. apply in_cnames_inv in Hy. destruct Hy as [bb [Hb E]]. subst y.
    apply in_cnames. apply fvt_mu_2; [exact Hb|]. intros Eb. subst bb. apply Hne. reflexivity.
  Qed.

  Lemma KS_mono : forall n n' c k cont ce, KS n c k cont ce -> (n' <= n)%nat -> KS n' c k cont ce.
  Proof.
    intros n n' c k cont ce H Hle.
    assert (Hgen : (forall ce', agree (cnames (fvt cont)) ce ce' -> exists kv, khead cont ce' = inl kv /\ Kk p cp n c k kv) ->
                   forall ce', agree (cnames (fvt cont)) ce ce' -> exists kv, khead cont ce' = inl kv /\ Kk p cp n' c k kv).
    { intros H0 ce' Ha. destruct (H0 ce' Ha) as [kv [E1 E2]]. exists kv. split; [exact E1 | eapply Kk_mono; eauto]. }
    destruct cont; unfold KS in *; try (apply Hgen; exact H).
    - intros j Hj. apply H. lia.
    - intros ce' Ha m. destruct (H ce' Ha m) as [kv [E1 E2]]. exists kv. split; [exact E1 | eapply Kk_mono; eauto].
  Qed.
  Lemma KS_agree : forall n c k cont ce ce', cont_shape c cont ->
    KS n c k cont ce -> agree (cnames (fvt cont)) ce ce' -> KS n c k cont ce'.
  Proof.
    intros n c k cont ce ce' Hsh H Ha.
    assert (Hgen : (forall ce', agree (cnames (fvt cont)) ce ce' -> exists kv, khead cont ce' = inl kv /\ Kk p cp n c k kv) ->
                   forall ce'', agree (cnames (fvt cont)) ce' ce'' -> exists kv, khead cont ce'' = inl kv /\ Kk p cp n c k kv).
    { intros H0 ce'' Ha'. apply H0. intros x Hx. rewrite (Ha' x Hx). apply Ha. exact Hx. }
    destruct cont; unfold KS in *; try (apply Hgen; exact H).
    - intros j Hj v0 pv Hd Hv env He. apply (H j Hj v0 pv Hd Hv). intros y Hy. rewrite (He y Hy).
      rewrite !clookup_cons. destruct (cident_eqb v y) eqn:E; [reflexivity|]. apply Ha.
      apply mu_body_names; [exact Hy|]. apply cident_eqb_neq in E. congruence.
    - intros ce'' Ha' m. apply H. intros y Hy. rewrite (Ha' y Hy). apply Ha. exact Hy.
  Qed.
  (* the consumer VALUE a related syntactic continuation of a DATA kind denotes *)
  Lemma KS_head : forall n k cont ce, cont_shape false cont -> KS n false k cont ce ->
    exists kv, khead cont ce = inl kv /\ Kb p cp n k kv.
  Proof.
    intros n k cont ce Hsh H. destruct cont; simpl in Hsh; try contradiction; try discriminate Hsh.
    - apply (H ce). apply agree_refl.
    - simpl in H. exists (KMuT v s ce). split; [reflexivity|]. apply Kb_intro.
      intros j Hj v0 pv Hd Hv. simpl. apply (H j Hj v0 pv Hd Hv). apply agree_refl.
    - apply (H ce). apply agree_refl.
  Qed.

  Lemma CK_transfer : forall n n' c k cont ce ce' (S S' : cident -> Prop), cont_shape c cont ->
    CK n c k cont ce S ->
    (forall x, In x (cnames (fvt cont)) -> S' x -> S x /\ clookup ce' x = clookup ce x) ->
    (n' <= n)%nat -> CK n' c k cont ce' S'.
  Proof.
    intros n n' c k cont ce ce' S S' Hsh [Hk HK] HS Hle. split.
    - intros bb Hb Hs. destruct (HS _ (in_cnames _ _ Hb) Hs) as [Hs1 Ha].
      destruct (Hk bb Hb Hs1) as [b' [E1 E2]]. exists b'. rewrite Ha. auto.
    - intros Hall. eapply KS_mono; [|exact Hle]. eapply KS_agree; [exact Hsh | apply HK |].
      + intros x Hx. apply (HS x Hx (Hall x Hx)).
      + intros x Hx. apply (HS x Hx (Hall x Hx)).
  Qed.

  Lemma cstep_cut_var : forall cont ce c v ty ty', cont_shape false cont ->
    cstep cp (Run (CCut (CXVar c v ty) ty' cont) ce) =
    match khead cont ce with
    | inl kv => match clookup ce v with
                | Some (BP pv) => interact_val pv kv
                | Some (BK _) => stuck "var-kind"
                | None => stuck "var-unbound"
                end
    | inr why => stuck why
    end.
  Proof. intros cont ce c v ty ty' H. destruct cont; simpl in H; try contradiction; try discriminate H; reflexivity. Qed.
  Lemma cstep_cut_lit : forall cont ce z ty', cont_shape false cont ->
    cstep cp (Run (CCut (CLit z) ty' cont) ce) =
    match khead cont ce with inl kv => interact_val (PInt z) kv | inr why => stuck why end.
  Proof. intros cont ce z ty' H. destruct cont; simpl in H; try contradiction; try discriminate H; reflexivity. Qed.
  Lemma cstep_cut_mu : forall cont ce c a s ty ty', cont_shape false cont ->
    cstep cp (Run (CCut (CMu c a s ty) ty' cont) ce) =
    match khead cont ce with inl kv => interact_mu (is_codata cp ty') a s ce kv | inr why => stuck why end.
  Proof. intros cont ce c a s ty ty' H. destruct cont; simpl in H; try contradiction; try discriminate H; reflexivity. Qed.
  Lemma cstep_cut_op : forall cont ce a o b ty',
    cstep cp (Run (CCut (COp a o b) ty' cont) ce) =
    match cont with
    | CXtor _ tag args _ => start_args cp args ce (FinXtorK tag (MCutP (is_codata cp ty') (COp a o b) ce))
    | _ => SNext (Arg (CProducer a) ce (MOpL o b ce (MCutK cont ce)))
    end.
  Proof. intros. destruct cont; reflexivity. Qed.

  (* a continuation of either kind, evaluated as a consumer argument / met by a head producer *)
  Lemma KS_arg : forall n c k cont ce m, cont_shape c cont -> KS n c k cont ce ->
    exists kv, rreach (cstep cp (Arg (CConsumer cont) ce m)) (SNext (App m (BK kv))) /\ Kk p cp n c k kv.
  Proof.
    intros n c k cont ce m Hsh H. destruct cont; simpl in Hsh; try contradiction.
    - destruct (H ce (agree_refl _ _)) as [kv [Hh Hk]]. exists kv. split; [|exact Hk].
      simpl in *. destruct (clookup ce v) as [[pv|kv']|]; try discriminate. injection Hh as Hh. subst. apply rreach_refl.
    - destruct Hsh as [Ec [_ [Hc _]]]. subst c. exists (KMuT v s ce). split.
      + simpl. rewrite Hc. apply rreach_refl.
      + apply Kk_intro; [discriminate|]. intros j Hj v0 pv Hd Hv. simpl. apply (H j Hj v0 pv Hd Hv). apply agree_refl.
    - subst c. destruct (H ce (agree_refl _ _) m) as [kv [Hr Hk]]. exists kv. split; [exact Hr | exact Hk].
    - destruct (H ce (agree_refl _ _)) as [kv [Hh Hk]]. exists kv. split; [|exact Hk].
      simpl in *. injection Hh as Hh. subst. apply rreach_refl.
  Qed.
  Definition head_producer (pr : cterm) : Prop :=
    match pr with CXVar _ _ _ | CLit _ | CMu _ _ _ _ | CXCase _ _ _ => True | _ => False end.
  Lemma KS_cut : forall n c k cont ce pr ty, cont_shape c cont -> KS n c k cont ce -> head_producer pr ->
    exists kv, rreach (cstep cp (Run (CCut pr ty cont) ce)) (cut_with_k (is_codata cp ty) pr ce kv) /\ Kk p cp n c k kv.
  Proof.
    intros n c k cont ce pr ty Hsh H Hp.
    destruct cont; simpl in Hsh; try contradiction.
    - destruct (H ce (agree_refl _ _)) as [kv [Hh Hk]]. exists kv. split; [|exact Hk].
      destruct pr; simpl in Hp; try contradiction; simpl; simpl in Hh; rewrite Hh; apply rreach_refl.
    - destruct Hsh as [Ec _]. subst c. exists (KMuT v s ce). split.
      + destruct pr; simpl in Hp; try contradiction; apply rreach_refl.
      + apply Kk_intro; [discriminate|]. intros j Hj v0 pv Hd Hv. simpl. apply (H j Hj v0 pv Hd Hv). apply agree_refl.
    - subst c. destruct (H ce (agree_refl _ _) (MCutP (is_codata cp ty) pr ce)) as [kv [Hr Hk]]. exists kv. split; [|exact Hk].
      assert (E : cstep cp (Run (CCut pr ty (CXtor c0 x args t)) ce) =
                  start_args cp args ce (FinXtorK x (MCutP (is_codata cp ty) pr ce))).
      { destruct pr; simpl in Hp; try contradiction; reflexivity. }
      rewrite E. eapply rreach_trans; [exact Hr|]. apply rreach_step. apply rreach_refl.
    - destruct (H ce (agree_refl _ _)) as [kv [Hh Hk]]. exists kv. split; [|exact Hk].
      simpl in Hh. injection Hh as Hh. subst kv.
      destruct pr; simpl in Hp; try contradiction; apply rreach_refl.
  Qed.

  (* the machine continuation "cut the value against cont" (data kinds) *)
  Lemma Kb_mcutk : forall n k cont ce, cont_shape false cont -> KS n false k cont ce -> Kb p cp n k (KRet (MCutK cont ce)).
  Proof.
    intros n k cont ce Hsh H. destruct (KS_head _ _ _ _ Hsh H) as [kv [Hh Hk]].
    apply Kb_intro. intros j Hj v pv Hd Hv. rewrite (dval_interact_ret p cp j v pv _ Hd Hv).
    apply sim_cstep. simpl. rewrite Hh. eapply Kb_use; eauto.
  Qed.
End FLa.
