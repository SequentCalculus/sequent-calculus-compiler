(* C03, semantic preservation: the statements about `Prog::focus` (= uniquify, then focus
   every definition), and `Bind` correctness as a statement of its own. *)
From Coq Require Import List ZArith NArith String Bool Lia.
From SCC Require Import Base.Sexp Lang.CoreSyn Sem.AxSem Sem.CoreSem Model.Backend Model.Uniquify Model.Focus
     Model.FocusCheck Proof.FocusTheorems
     Proof.FocusKont Proof.FocusRel Proof.FocusMono Proof.FocusSim Proof.FocusStep Proof.FocusMain Proof.FocusRun
     Proof.FocusFrag.
From SCC Require Import Model.FocusGuard.
Import ListNotations.
Open Scope list_scope.
Open Scope N_scope.

(* the target program runs the focused definitions of the source *)
Definition focused_defs (M0 : N) (ps qt : cprog) : Prop :=
  (forall ty, is_codata qt ty = is_codata ps ty) /\
  (forall f d, cfind_def ps f = Some d ->
     exists b' mc m2, focus_stmt (cdbody d) mc = Ok (b', m2) /\ M0 <= mc /\ ids_le_stmt M0 (cdbody d) = true /\
                      cfind_def qt f = Some (mkcd (cdname d) (cdctx d) (fs2c_stmt b'))).

(* `Bind`: the statement [bind a k] evaluates the argument [a] exactly as the machine does -
   innermost non-values first, left to right, once - and then behaves as the statement that [k]
   builds for the name of the value, PROVIDED [k] is the code of the machine continuation [m]
   ([mk_rel]); environments related by [env_rel] (target = source + fresh bindings). *)
Theorem bind_correct : forall ps qt M0, focused_defs M0 ps qt ->
  forall a k c mc s' m2 e e' m fuel out,
    bind_arg a k mc = Ok (s', m2) -> M0 <= c -> c <= mc -> ids_le_arg M0 a = true ->
    env_rel ps M0 e e' -> mk_rel ps M0 c m k e' ->
    clash_free ps fuel (Arg a e m) = true -> good_end (snd (crun fuel ps (Arg a e m) out)) ->
    exists fuel', crun fuel' qt (Run (fs2c_stmt s') e') out = crun fuel ps (Arg a e m) out.
Proof.
  intros ps qt M0 [Hcod Hdefs] a k c mc s' m2 e e' m fuel out B L0 L1 IA E R CF G.
  eapply (sim_crun ps qt M0 Hcod Hdefs); eauto. eapply CR_arg; eauto.
Qed.

(* statements *)
Theorem focus_stmt_correct : forall ps qt M0, focused_defs M0 ps qt ->
  forall s mc s' m2 e e' fuel out,
    focus_stmt s mc = Ok (s', m2) -> M0 <= mc -> ids_le_stmt M0 s = true -> env_rel ps M0 e e' ->
    clash_free ps fuel (Run s e) = true -> good_end (snd (crun fuel ps (Run s e) out)) ->
    exists fuel', crun fuel' qt (Run (fs2c_stmt s') e') out = crun fuel ps (Run s e) out.
Proof.
  intros ps qt M0 [Hcod Hdefs] s mc s' m2 e e' fuel out F L IS E CF G.
  eapply (sim_crun ps qt M0 Hcod Hdefs); eauto. eapply CR_run; eauto.
Qed.

Lemma pre_check_ids_le : forall p, pre_check p = true -> forallb (ids_le_def (cpmax p)) (cpdefs p) = true.
Proof.
  intros p P. unfold pre_check in P. rewrite forallb_forall in *. intros d Hd. specialize (P d Hd).
  unfold pre_def in P. apply andb_true_iff in P. destruct P as [P _]. apply andb_true_iff in P. tauto.
Qed.

Theorem focus_prog_preserves_uniquified : forall p p1 q args fuel,
  pre_check p = true -> focus_wf p = true -> uniquify_prog p = Ok p1 -> focus_prog p = Ok q ->
  clash_free_prog fuel p1 args = true -> good_end (snd (run_core fuel p1 args)) ->
  exists fuel', run_fs fuel' q args = run_core fuel p1 args.
Proof.
  intros p p1 q args fuel P W U F CF G.
  destruct (uniquify_unique_thm p P W) as (p1' & U' & _ & _ & P1). rewrite U in U'. okinv U'.
  unfold focus_prog in F. rewrite U in F. simpl in F. rb2 F ds m FD. okinv F.
  eapply focus_preserves_uniquified; eauto. apply pre_check_ids_le; exact P1.
Qed.

(* the static guard instead of the run-time clash hypothesis *)
Theorem focus_prog_preserves_guarded : forall bn kr p p1 q args fuel,
  pre_check p = true -> focus_wf p = true -> uniquify_prog p = Ok p1 -> focus_prog p = Ok q ->
  bn && kr = false -> sg_prog bn kr p1 = true ->
  good_end (snd (run_core fuel p1 args)) ->
  exists fuel', run_fs fuel' q args = run_core fuel p1 args.
Proof.
  intros bn kr p p1 q args fuel P W U F FL SG G.
  eapply focus_prog_preserves_uniquified; eauto.
  apply (sg_clash_free_prog p1 bn kr FL SG).
Qed.
