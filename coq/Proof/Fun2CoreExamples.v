(* Non-vacuity of the preservation theorem for the fragment: concrete multi-definition programs with
   recursion, non-tail conditionals (shared continuations), data types with case, labels/goto and a
   label passed as a consumer argument, codata (new, destructors, by-name let and argument); each satisfies
   the guard, and both machines are run by vm_compute (the Core side on the model's translation). *)
From Coq Require Import List ZArith NArith String Bool.
From SCC Require Import Lang.FunSyn Lang.CoreSyn Sem.AxSem Sem.CoreSem Sem.FunSem Model.Fun2Core
     Proof.Fun2CoreProof Proof.Fun2CoreMain Proof.Fun2CoreInv Proof.Fun2CoreRel Proof.Fun2CoreProg.
Import ListNotations.
Local Open Scope string_scope.
Local Open Scope Z_scope.

Definition vI (x : string) : fterm := FVar x (Some FI64) (Some FPrd).
Definition pI (x : string) : fbinding := mkfb x FPrd FI64.
Definition callI (f : string) (args : list fterm) : fterm := FCall f args (Some FI64).
Definition oI : option fty := Some FI64.

(* 1. calls: recursion with non-tail calls, mutual recursion with tail calls *)
Definition ex_calls : fcprog :=
  mkfcprog [] []
    [mkfdef "fib" [pI "n"] FI64
       (FIfC FLt (vI "n") (Some (FLit 2)) (vI "n")
          (FOp (callI "fib" [FOp (vI "n") FSub (FLit 1)]) FSum (callI "fib" [FOp (vI "n") FSub (FLit 2)])) oI);
     mkfdef "even" [pI "n"] FI64
       (FIfC FEq (vI "n") None (FLit 1) (callI "odd" [FOp (vI "n") FSub (FLit 1)]) oI);
     mkfdef "odd" [pI "n"] FI64
       (FIfC FEq (vI "n") None (FLit 0) (callI "even" [FOp (vI "n") FSub (FLit 1)]) oI);
     mkfdef "main" [pI "n"] FI64
       (FPrint true (callI "fib" [vI "n"])
          (FPrint true (callI "even" [vI "n"]) (FLit 0) oI) oI)].

Example ex_calls_ok :
  prog_guard ex_calls = true /\ NoDup (map fdname (fcpdefs ex_calls)) /\
  compile_prog ex_calls = Ok (compiled_or_empty ex_calls) /\
  run_fun 3000 ex_calls [10] = ([(true, 55); (true, 1)], OExit 0) /\
  run_core 5000 (compiled_or_empty ex_calls) [10] = ([(true, 55); (true, 1)], OExit 0).
Proof.
  split; [vm_compute; reflexivity|]. split; [repeat constructor; simpl; intuition discriminate|].
  split; [vm_compute; reflexivity|]. split; vm_compute; reflexivity.
Qed.

(* 2. shared continuations: a conditional as let-bound term, nested lets *)
Definition ex_shared : fcprog :=
  mkfcprog [] []
    [mkfdef "clamp" [pI "x"; pI "lo"] FI64
       (FLet "y" FI64 (FIfC FLt (vI "x") (Some (vI "lo")) (vI "lo") (vI "x") oI)
          (FPrint true (vI "y")
             (FLet "z" FI64 (FIfC FEq (vI "y") (Some (vI "lo")) (FLet "w" FI64 (FOp (vI "y") FProd (FLit 2)) (vI "w") oI) (vI "y") oI)
                (FOp (vI "z") FSum (vI "x")) oI) oI) oI);
     mkfdef "main" [pI "n"] FI64
       (FPrint true (FOp (callI "clamp" [vI "n"; FLit 3]) FSum (FIfC FEq (vI "n") None (FLit 100) (FLit 200) oI))
          (FLit 0) oI)].

Example ex_shared_ok :
  prog_guard ex_shared = true /\ NoDup (map fdname (fcpdefs ex_shared)) /\
  compile_prog ex_shared = Ok (compiled_or_empty ex_shared) /\
  (2 <= List.length (cpdefs (compiled_or_empty ex_shared)) - 2)%nat /\
  run_fun 1000 ex_shared [1] = ([(true, 3); (true, 207)], OExit 0) /\
  run_core 2000 (compiled_or_empty ex_shared) [1] = ([(true, 3); (true, 207)], OExit 0).
Proof.
  split; [vm_compute; reflexivity|]. split; [repeat constructor; simpl; intuition discriminate|].
  split; [vm_compute; reflexivity|]. split; [vm_compute; repeat constructor|]. split; vm_compute; reflexivity.
Qed.

(* 3. data: constructors, case in tail and in non-tail position, recursion *)
Definition tyL : fty := FDecl "List" [].
Definition vL (x : string) : fterm := FVar x (Some tyL) (Some FPrd).
Definition consctx : fctx := [mkfb "h" FPrd FI64; mkfb "t" FPrd tyL].
Definition ex_data : fcprog :=
  mkfcprog [mkfdata "List" [] [mkfctor "Nil" []; mkfctor "Cons" [mkfb "x" FPrd FI64; mkfb "xs" FPrd tyL]]] []
    [mkfdef "range" [pI "n"] tyL
       (FIfC FEq (vI "n") None (FCtor "Nil" [] (Some tyL))
          (FCtor "Cons" [vI "n"; FCall "range" [FOp (vI "n") FSub (FLit 1)] (Some tyL)] (Some tyL)) (Some tyL));
     mkfdef "sum" [mkfb "l" FPrd tyL] FI64
       (FCase (vL "l") []
          [FClause FData "Nil" [] [] (FLit 0);
           FClause FData "Cons" ["h"; "t"] consctx (FOp (vI "h") FSum (callI "sum" [vL "t"]))] oI);
     mkfdef "heads" [mkfb "l" FPrd tyL] FI64
       (FLet "s" FI64
          (FCase (vL "l") []
             [FClause FData "Nil" [] [] (FLit 0);
              FClause FData "Cons" ["h"; "t"] consctx (vI "h")] oI)
          (FOp (vI "s") FProd (vI "s")) oI);
     mkfdef "main" [pI "n"] FI64
       (FPrint true (callI "sum" [FCall "range" [vI "n"] (Some tyL)])
          (FPrint true (callI "heads" [FCall "range" [vI "n"] (Some tyL)]) (FLit 0) oI) oI)].

Example ex_data_ok :
  prog_guard ex_data = true /\ NoDup (map fdname (fcpdefs ex_data)) /\
  compile_prog ex_data = Ok (compiled_or_empty ex_data) /\
  run_fun 2000 ex_data [6] = ([(true, 21); (true, 36)], OExit 0) /\
  run_core 4000 (compiled_or_empty ex_data) [6] = ([(true, 21); (true, 36)], OExit 0).
Proof.
  split; [vm_compute; reflexivity|]. split; [repeat constructor; simpl; intuition discriminate|].
  split; [vm_compute; reflexivity|]. split; vm_compute; reflexivity.
Qed.

(* 4. labels and goto; a label passed to a consumer parameter *)
Definition ex_labels : fcprog :=
  mkfcprog [] []
    [mkfdef "find" [pI "x"] FI64
       (FOp (FLabel "out" (FIfC FEq (vI "x") None (FGoto "out" (FLit 42) oI) (FOp (vI "x") FSum (FLit 1)) oI) oI)
            FSum (FLit 1000));
     mkfdef "jump" [mkfb "k" FCns FI64; pI "x"] FI64
       (FGoto "k" (FOp (vI "x") FProd (FLit 2)) oI);
     mkfdef "esc" [pI "x"] FI64
       (FLabel "r" (FOp (callI "jump" [FVar "r" (Some FI64) (Some FCns); vI "x"]) FSum (FLit 1000)) oI);
     mkfdef "main" [pI "n"] FI64
       (FPrint true (callI "find" [FLit 0])
          (FPrint true (callI "find" [vI "n"])
             (FPrint true (callI "esc" [vI "n"]) (FLit 0) oI) oI) oI)].

Example ex_labels_ok :
  prog_guard ex_labels = true /\ NoDup (map fdname (fcpdefs ex_labels)) /\
  compile_prog ex_labels = Ok (compiled_or_empty ex_labels) /\
  run_fun 1000 ex_labels [5] = ([(true, 1042); (true, 1006); (true, 10)], OExit 0) /\
  run_core 2000 (compiled_or_empty ex_labels) [5] = ([(true, 1042); (true, 1006); (true, 10)], OExit 0).
Proof.
  split; [vm_compute; reflexivity|]. split; [repeat constructor; simpl; intuition discriminate|].
  split; [vm_compute; reflexivity|]. split; vm_compute; reflexivity.
Qed.

(* 5. codata: a stream built by `new` (corecursive), destructors on variables, a by-name
   let and a by-name argument (s.tl() is passed unevaluated) *)
Definition tyS : fty := FDecl "Stream" [].
Definition vS (x : string) : fterm := FVar x (Some tyS) (Some FPrd).
Definition ex_codata : fcprog :=
  mkfcprog [] [mkfcodata "Stream" [] [mkfdtor "hd" [] FI64; mkfdtor "tl" [] tyS]]
    [mkfdef "from" [pI "n"] tyS
       (FNew [FClause FCodata "hd" [] [] (vI "n");
              FClause FCodata "tl" [] [] (FCall "from" [FOp (vI "n") FSum (FLit 1)] (Some tyS))] (Some tyS));
     mkfdef "nth" [mkfb "s" FPrd tyS; pI "k"] FI64
       (FIfC FEq (vI "k") None (FDtor (vS "s") "hd" [] [] oI)
          (callI "nth" [FDtor (vS "s") "tl" [] [] (Some tyS); FOp (vI "k") FSub (FLit 1)]) oI);
     mkfdef "main" [pI "n"] FI64
       (FLet "s" tyS (FCall "from" [vI "n"] (Some tyS))
          (FPrint true (callI "nth" [vS "s"; FLit 3])
             (FPrint true (FDtor (vS "s") "hd" [] [] oI)
                (* chained destructors and a call as scrutinee *)
                (FPrint true (FDtor (FDtor (FDtor (vS "s") "tl" [] [] (Some tyS)) "tl" [] [] (Some tyS)) "hd" [] [] oI)
                   (FPrint true (FDtor (FCall "from" [FLit 7] (Some tyS)) "hd" [] [] oI) (FLit 0) oI) oI) oI) oI) oI)].

Example ex_codata_ok :
  prog_guard ex_codata = true /\ NoDup (map fdname (fcpdefs ex_codata)) /\
  compile_prog ex_codata = Ok (compiled_or_empty ex_codata) /\
  run_fun 1000 ex_codata [10] = ([(true, 13); (true, 10); (true, 12); (true, 7)], OExit 0) /\
  run_core 2000 (compiled_or_empty ex_codata) [10] = ([(true, 13); (true, 10); (true, 12); (true, 7)], OExit 0).
Proof.
  split; [vm_compute; reflexivity|]. split; [repeat constructor; simpl; intuition discriminate|].
  split; [vm_compute; reflexivity|]. split; vm_compute; reflexivity.
Qed.

(* the capture witness is inside the guard (repair d5d4151 of the translation) *)
Example guard_accepts_capture_witness :
  prog_guard capture_witness = true /\ NoDup (map fdname (fcpdefs capture_witness)) /\
  existsb (fun d => negb (nocap (fdbody d))) (fcpdefs capture_witness) = true /\
  shadowing_risk_prog capture_witness = true.
Proof.
  split; [vm_compute; reflexivity|]. split; [repeat constructor; simpl; intuition discriminate|].
  split; vm_compute; reflexivity.
Qed.
(* by the THEOREM (not by evaluation): every final source run of the capture witness is reproduced by the
   Core machine on its translation *)
Lemma capture_witness_simulated : forall (args : list Z) (n : nat) (o : obs),
  run_fun n capture_witness args = o -> final o ->
  exists m, run_core m (compiled_or_empty capture_witness) args = o.
Proof.
  intros args n o Hr Hf.
  exact (fun2core_correct_fragment_lemma capture_witness _ args n o (proj1 capture_witness_fixed_lemma)
           (proj1 (proj2 guard_accepts_capture_witness)) (proj1 guard_accepts_capture_witness) Hr Hf).
Qed.
(* the call-to-main witness (former finding, repaired in /repo by f929eb7) is INSIDE the guard too, and by the
   THEOREM every final source run of it is reproduced by the Core machine on its translation *)
Example guard_accepts_call_main_witness :
  prog_guard call_main_witness = true /\ NoDup (map fdname (fcpdefs call_main_witness)) /\
  calls_main_prog call_main_witness = true.
Proof.
  split; [vm_compute; reflexivity|]. split; [repeat constructor; simpl; intuition discriminate | vm_compute; reflexivity].
Qed.
Lemma call_main_witness_simulated : forall (args : list Z) (n : nat) (o : obs),
  run_fun n call_main_witness args = o -> final o ->
  exists m, run_core m (compiled_or_empty call_main_witness) args = o.
Proof.
  intros args n o Hr Hf.
  exact (fun2core_correct_fragment_lemma call_main_witness _ args n o (proj1 call_main_witness_fixed_lemma)
           (proj1 (proj2 guard_accepts_call_main_witness)) (proj1 guard_accepts_call_main_witness) Hr Hf).
Qed.
