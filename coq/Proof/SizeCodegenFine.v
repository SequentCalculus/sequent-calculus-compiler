(* C14 (with the generic induction of C19): the guarded instruction bound of whole programs with TWO unit costs - M for
   the units of a memory operation (store / load of a context), K for all other units:
   len (translate ..) <= Sem/WfGuard64.cg_fine_defs K M ds  (translate_size_gen of Proof/SizeCodegen.v with W := True).
   Used for the reach guard of AArch64 (B.cond / ADR reach 1 MiB), where the single
   constant of C19 (85 = the cost of a memory unit) is 30 to 50 times the real size of ordinary statements. *)
From Coq Require Import String List ZArith NArith Bool Lia.
From SCC Require Import Base.Sexp Lang.AxSyn Lang.AxSize Model.ParMoves Model.Backend Model.Linearize Model.LinCheck Model.SizeWf
     Sem.WfGuard64 Proof.LinBasics Proof.SizeLin Proof.SizeCodegen.
Import ListNotations.
Open Scope list_scope.
Open Scope N_scope.
Local Arguments N.add : simpl never.
Local Arguments N.mul : simpl never.
Local Arguments N.sub : simpl never.
Local Arguments N.of_nat : simpl never.
Local Arguments len : simpl never.

Section CostFine.
Context {Code Temp : Type} (B : backend Code Temp).
Variables K M : N.
Hypothesis K1 : 1 <= K.
Hypothesis c_mark : forall c, len (b_mark B c) <= K.
Hypothesis c_jump : forall t, len (b_jump B t) <= K.
Hypothesis c_jump_label : forall l, len (b_jump_label B l) <= K.
Hypothesis c_jump_label_fixed : forall l, len (b_jump_label_fixed B l) <= K.
Hypothesis c_jcc2 : forall so a b l, len (b_jcc2 B so a b l) <= K.
Hypothesis c_jcc1 : forall so a l, len (b_jcc1 B so a l) <= K.
Hypothesis c_load_immediate : forall t z, len (b_load_immediate B t z) <= K.
Hypothesis c_load_label : forall t l, len (b_load_label B t l) <= K.
Hypothesis c_add_and_jump : forall t z, len (b_add_and_jump B t z) <= K.
Hypothesis c_arith : forall o a b c, len (b_arith B o a b c) <= K.
Hypothesis c_mov : forall a b, len (b_mov B a b) <= K.
Hypothesis c_print : forall nl t c, len (b_print B nl t c) <= K * (1 + len c).
Hypothesis c_erase : forall t lc, len (fst (b_erase B t lc)) <= K.
Hypothesis c_share : forall t n lc, len (fst (b_share_n B t n lc)) <= K.
Hypothesis c_store : forall a r lc code lc', b_store B a r lc = Ok (code, lc') -> len code <= M * (1 + len a).
Hypothesis c_load : forall a r lc code lc', b_load B a r lc = Ok (code, lc') -> len code <= M * (1 + len a).
(* the parallel moves of one Substitute with distinct ids on both sides *)
Hypothesis c_exchange_wf : forall re c code, NoDup (ids c) -> NoDup (new_ids_of re) ->
  code_exchange B (transpose re c) c (map fst re) = Ok code -> len code <= K * (1 + len c + len re).

Let c_exchange_guarded : forall re c code, (True -> NoDup (ids c) /\ NoDup (new_ids_of re)) ->
  code_exchange B (transpose re c) c (map fst re) = Ok code -> len code <= K * (1 + len c + len re).
Proof. intros re c code H. apply c_exchange_wf; apply H; exact I. Qed.

Theorem translate_size_fine : forall types ds lc code lc',
  sub_wf_defs ds = true ->
  translate B types ds lc = Ok (code, lc') -> len code <= cg_fine_defs K M ds.
Proof. intros types ds lc code lc' HW. apply (translate_size_gen B K M True); auto. Qed.
End CostFine.

