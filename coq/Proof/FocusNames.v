(* After `Prog::focus` identifiers with the same id are spelled alike (C12): every variable occurrence of the
   focused statement is, BY ID, the first binding of its scope with that id, and carries that binding's name
   ([nc_stmt] of Sem/FsFrag2.v, the fragment predicate names_ok of the shrinking theorems).  The instance
   "the binding found by id IS the occurrence" of [focus_stmt_inv] (Proof/FocusTy.v). *)
From Coq Require Import List ZArith NArith String Bool Lia.
From SCC Require Import Base.Sexp Lang.SynUtil Lang.CoreSyn Sem.FsCheck Sem.CoreCheck Sem.FsFrag2
     Model.Backend Model.Uniquify Model.Focus Model.FocusCheck
     Proof.CoreInd Proof.SubstProof Proof.CheckLemmas Proof.FocusKont Proof.FocusMono Proof.CoreTyRules Proof.FsTyRules Proof.FocusTy.
Import ListNotations.
Open Scope list_scope.
Open Scope N_scope.

Lemma find_cvars : forall G i, find (fun y => N.eqb (cid_id y) i) (cvars G) = option_map cbvar (flookup G i).
Proof.
  induction G as [|b r IH]; intros i; simpl; [reflexivity|].
  destruct (N.eqb (cid_id (cbvar b)) i); [reflexivity | apply IH].
Qed.
Lemma nc_var_intro : forall G b, flookup G (cid_id (cbvar b)) = Some b -> nc_var (cvars G) (cbvar b) = true.
Proof. intros G b H. unfold nc_var. rewrite find_cvars, H. simpl. apply cident_eqb_refl. Qed.
Lemma nc_ibound : forall G b, ibound G b -> nc_var (cvars G) (cbvar b) = true.
Proof. intros G b (_ & _ & H). exact (nc_var_intro G b H). Qed.
Lemma nc_vars_intro : forall G bs sig, Forall2 (farg_ok G) bs sig -> forallb (nc_var (cvars G)) (cvars bs) = true.
Proof.
  intros G bs sig H. induction H as [|b s r sr (_ & _ & Hb) Hr IH]; simpl; [reflexivity|].
  rewrite (nc_var_intro _ _ Hb), IH. reflexivity.
Qed.
Lemma cvars_app : forall A G, cvars (A ++ G) = cvars A ++ cvars G.
Proof. intros. unfold cvars. apply map_app. Qed.

Section Names.
Variables (data codata : list ctydecl) (defs : list cdef).
Notation QSn := (fun G s => nc_stmt (cvars G) s = true).

Lemma nm_xcase : forall G side (cls : list cclause) cls' (n : cident) (d : ctydecl),
  Forall (QC QSn G) cls' -> nc_term (cvars G) (FsXCase side cls' (CDecl n)) = true.
Proof.
  intros G side cls cls' n d F. cbn [nc_term]. induction F as [|[c x ctx body] r H Hr IH]; [reflexivity|].
  unfold QC in H. rewrite cvars_app in H. rewrite H, IH. reflexivity.
Qed.

Theorem focus_stmt_names : forall s m Gs Gt T s' m',
  focus_stmt s m = Ok (s', m') -> ccheck_stmt data codata defs Gs s = None ->
  rel Gs Gt -> NoDup (binder_ids_stmt s ++ cids Gs) -> ids_le_stmt T s = true -> mem_le T (cids Gs) -> T <= m ->
  mem_le m (cids Gt) -> nc_stmt (cvars Gt) s' = true.
Proof.
  intros s m Gs Gt T s' m' Hf Ht Hrel Hnd Hid HGs LE HGt.
  refine (focus_stmt_inv data codata defs (fun _ => True) QSn (fun G _ _ t => nc_term (cvars G) t = true)
            I (fun _ _ => I) (fun _ _ _ _ _ _ _ _ _ => I) (fun _ _ _ _ _ => I) _ _ _ _ _ _ _ _ _ _ _
            s m Gs Gt T s' m' Hf Ht (conj Hrel (conj HGs (conj LE HGt))) Hnd Hid).
  - intros G v c ty H. exact (nc_var_intro G (mkcb v c ty) H).
  - reflexivity.
  - intros G b1 o b2 H1 H2. cbn [nc_term]. rewrite (nc_ibound _ _ H1), (nc_ibound _ _ H2). reflexivity.
  - intros G c v s0 ty H. exact H.
  - intros G side x bs n d sg _ _ Hb. exact (nc_vars_intro _ _ _ Hb).
  - intros G side cls cls' n d _ _ _ F. exact (nm_xcase G side cls cls' n d F).
  - intros G p ty q _ Hp Hq. cbn [nc_stmt]. rewrite Hp, Hq. reflexivity.
  - intros G so b1 ob t e H1 Ho Ht' He. cbn [nc_stmt]. rewrite (nc_ibound _ _ H1), Ht', He.
    destruct ob as [b2|]; [cbn [option_map]; rewrite (nc_ibound _ _ Ho)|]; reflexivity.
  - intros G nl b next Hb Hn. cbn [nc_stmt]. rewrite (nc_ibound _ _ Hb), Hn. reflexivity.
  - intros G f d bs _ Hb. exact (nc_vars_intro _ _ _ Hb).
  - intros G b Hb. exact (nc_ibound _ _ Hb).
Qed.
End Names.
