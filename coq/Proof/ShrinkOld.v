(* Proof/ShrinkOld.v (C12, fragment 2; "Old" = the ids that exist before shrinking, those <= max_id of the
   input) - shrinking never duplicates a binder of the input: for every
   id x <= max_id of the input, x occurs among the binders of the output statement and of the bodies of
   the definitions lifted out of it at most as often as among the binders of the input statement.
   "Old" in the file name and in [opost] / [shrink_stmt_old] means these ids: the ones that exist
   before the run (<= m0 <= max_id at the start), as opposed to the ids drawn during the run.
   This is the half of [bpost] (Proof/ShrinkProof.v) about the ids that are not drawn during the run.
   With globally distinct binders in the input it gives LinCheck's binder condition (binders_ok,
   Proof/ShrinkBindersOk.v). *)
From Coq Require Import List ZArith NArith String Bool Lia.
From SCC Require Import Base.Sexp Lang.SynUtil Lang.CoreSyn Lang.AxSyn Sem.FsCheck Model.Shrink Proof.ShrinkProof.
Import ListNotations.
Open Scope list_scope.

Section Old.
Variable m0 : N.

Definition opost (st : sst) (r : stmt) (st' : sst) (s : fsstmt) : Prop :=
  (s_max st <= s_max st')%N /\
  exists nd, s_lifted st' = nd ++ s_lifted st /\
             forall x, (x <= m0)%N -> cnt (binders r ++ lifted_binders nd) x <= cnt (cbinders s) x.

Lemma opost_nobinders : forall st r s, binders r = [] -> opost st r st s.
Proof. intros st r s Hb. split; [lia|]. exists []. split; [reflexivity|]. rewrite Hb. intros x Hx. cbn. lia. Qed.

(* an id <= m0 <= max_id is none of those drawn during the run, so [grows] leaves it no extra occurrence *)
Lemma shrink_stmt_old : forall E fuel s st r st',
  shrink_stmt fuel E s st = SOk (r, st') -> (m0 <= s_max st)%N -> opost st r st' s.
Proof.
  intros E fuel s st r st' H Hm. apply shrink_stmt_b in H as (Hm1 & nd & Hl & Hg).
  split; [exact Hm1|]. exists nd. split; [exact Hl|]. intros x Hx. specialize (Hg x). lia.
Qed.
End Old.
