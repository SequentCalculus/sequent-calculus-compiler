(* C15, program level, fragment without type parameters / type arguments:
   check (as it is, or before fix d524b1f) accepts only programs that satisfy the declarative rules. *)
From Coq Require Import List ZArith String Bool Permutation Lia.
From SCC Require Import Base.Sexp Lang.SynUtil Lang.FunSyn Model.Check Sem.FunTyping
  Proof.FunInd Proof.FunEq Proof.CheckAnn Proof.TypingReject Proof.CheckBuild Proof.CheckMono Proof.CheckMonoSound Proof.CheckDecls.
Import ListNotations.
Open Scope list_scope.

Lemma in_tdecls : forall ds td, In td (tdecls ds) -> exists d, In d ds /\ tdecl_of d = Some td.
Proof.
  induction ds as [|d r IH]; simpl; intros td H; [destruct H|].
  destruct (tdecl_of d) as [t|] eqn:E.
  - destruct H as [<-|H]; [eauto|]. destruct (IH _ H) as [d' [? ?]]. eauto.
  - destruct (IH _ H) as [d' [? ?]]. eauto.
Qed.
Lemma in_fdefs : forall ds d, In d (fdefs ds) -> In (FDDef d) ds.
Proof.
  induction ds as [|x r IH]; simpl; intros d H; [destruct H|].
  destruct x; try (right; apply IH; assumption).
  destruct H as [<-|H]; [left; reflexivity|right; apply IH; assumption].
Qed.

Lemma mono_world_of_prog : forall p,
  mono_prog p = true -> names_ok (tdecls (fpdecls p)) (fdefs (fpdecls p)) = true ->
  mono_world (tdecls (fpdecls p)) (fdefs (fpdecls p)).
Proof.
  intros p Hm Hn. unfold mono_prog in Hm. rewrite forallb_forall in Hm.
  constructor; [assumption| | | |].
  - intros td Hin. destruct (in_tdecls _ _ Hin) as [d [Hd Ht]]. specialize (Hm d Hd).
    destruct d as [d|d|d]; simpl in Ht; inversion Ht; subst; simpl in *.
    + destruct (fdaparams d); [reflexivity|discriminate].
    + destruct (fcoparams d); [reflexivity|discriminate].
  - intros td s Hin Hs. destruct (in_tdecls _ _ Hin) as [d [Hd Ht]]. specialize (Hm d Hd).
    destruct d as [d|d|d]; simpl in Ht; inversion Ht; subst; simpl in *.
    + apply andb_true_iff in Hm. destruct Hm as [_ Hm]. rewrite forallb_forall in Hm.
      apply in_map_iff in Hs. destruct Hs as [c [<- Hc]]. simpl. split; [apply Hm; assumption|reflexivity].
    + apply andb_true_iff in Hm. destruct Hm as [_ Hm]. rewrite forallb_forall in Hm.
      apply in_map_iff in Hs. destruct Hs as [c [<- Hc]]. simpl. specialize (Hm c Hc).
      apply andb_true_iff in Hm. exact Hm.
  - intros d Hin. apply in_fdefs in Hin. specialize (Hm _ Hin). simpl in Hm.
    apply andb_true_iff in Hm. destruct Hm as [Hm _]. apply andb_true_iff in Hm. exact Hm.
  - intros td s Hin Hp Hs. destruct (in_tdecls _ _ Hin) as [d [Hd Ht]].
    destruct d as [d|d|d]; simpl in Ht; inversion Ht; subst; simpl in *; [discriminate|].
    apply in_map_iff in Hs. destruct Hs as [c [<- Hc]]. simpl. discriminate.
Qed.
Lemma mono_def_body : forall p d, mono_prog p = true -> In d (fdefs (fpdecls p)) -> mono_term (fdbody d) = true.
Proof.
  intros p d Hm Hin. unfold mono_prog in Hm. rewrite forallb_forall in Hm.
  apply in_fdefs in Hin. specialize (Hm _ Hin). simpl in Hm. apply andb_true_iff in Hm. tauto.
Qed.


Lemma ctx_no_dups_go_ok : forall c seen, ctx_no_dups_go seen c = COk tt ->
  nodup (map fbvar c) = true /\ forall x, In x (map fbvar c) -> ~ In x seen.
Proof.
  induction c as [|b r IH]; intros seen H; simpl in H; [split; [reflexivity|intros ? []]|].
  destruct (mem_name (fbvar b) seen) eqn:E; [destruct (fbchi b); discriminate|].
  apply IH in H. destruct H as [Hn Hs]. split.
  - simpl. rewrite Hn, andb_true_r. destruct (mem (fbvar b) (map fbvar r)) eqn:Em; [|reflexivity].
    apply mem_In in Em. exfalso. eapply Hs; [eassumption|left; reflexivity].
  - intros y [<-|Hy] Hin.
    + assert (mem (fbvar b) seen = true) by (apply mem_In; assumption). unfold mem_name, mem in *. congruence.
    + eapply Hs; [eassumption|right; assumption].
Qed.

Section Defs.
  Variable ts : list tdecl.
  Variable fs : list fdef.
  Hypothesis W : mono_world ts fs.

  Lemma ctx_check_sound : forall c st st', mono_ctx c = true -> tables ts fs st -> minv st ->
    ctx_check c st = COk st' ->
    forallb (fun b => wf_ty ts (fbty b)) c = true /\ minv st' /\ same_templates st st' /\ grows st st'.
  Proof.
    induction c as [|b r IH]; intros st st' Hm Tb I H; simpl in *.
    - inversion H; subst. auto using same_templates_refl, grows_refl.
    - apply andb_true_iff in Hm. destruct Hm as [Hb Hr].
      apply cbind_ok in H. destruct H as [st1 [H1 H]].
      destruct (ty_check_mono_sound ts fs (W_ret _ _ W) _ _ _ Hb Tb I H1) as [Hw [I1 [S1 [G1 _]]]].
      destruct (IH st1 st' Hr (tables_same _ _ _ _ Tb S1) I1 H) as [Hwr [I2 [S2 G2]]].
      rewrite Hw, Hwr. splits; frame.
  Qed.

  (* def.rs, since fix 5b8c76f: the return type of `main` is compared with i64 *)
  Lemma main_ret_check_mono_sound : forall d st st', mono_ty (fdret d) = true -> tables ts fs st -> minv st ->
    main_ret_check d st = COk st' -> main_ret_ok d = true /\ minv st' /\ same_templates st st' /\ grows st st'.
  Proof.
    intros d st st' Hm Tb I H. unfold main_ret_check in H. unfold main_ret_ok.
    destruct (String.eqb (fdname d) "main").
    - destruct (check_equality_mono_sound ts fs (W_ret _ _ W) FI64 (fdret d) st st' eq_refl Hm Tb I H) as [E [_ [I' [S [G _]]]]].
      rewrite <- E. splits; auto.
    - inversion H; subst. splits; auto using same_templates_refl, grows_refl.
  Qed.

  Lemma def_check_gen_sound : forall eager d st d' st',
    mono_ctx (fdctx d) = true -> mono_ty (fdret d) = true -> mono_term (fdbody d) = true ->
    tables ts fs st -> minv st -> def_check_gen eager d st = COk (d', st') ->
    def_ok ts fs d = true /\ minv st' /\ same_templates st st'.
  Proof.
    intros eager d st d' st' Hmc Hmr Hmb Tb I H. apply run_def in H.
    destruct H as (st1 & st2a & st2 & body' & Hnd & H1 & H2 & H2m & H3 & ->).
    apply ctx_no_dups_go_ok in Hnd. destruct Hnd as [Hnd _].
    destruct (ctx_check_sound _ _ _ Hmc Tb I H1) as [Hwc [I1 [S1 G1]]].
    destruct (ty_check_mono_sound ts fs (W_ret _ _ W) _ _ _ Hmr (tables_same _ _ _ _ Tb S1) I1 H2) as [Hwr [I2a [S2a [G2a _]]]].
    assert (S02a : same_templates st st2a) by frame.
    destruct (main_ret_check_mono_sound d st2a st2 Hmr (tables_same _ _ _ _ Tb S02a) I2a H2m) as [Hmain [I2 [S2 G2]]].
    assert (S02 : same_templates st st2) by frame.
    destruct (check_term_gen_sound ts fs W (fdbody d) eager st2 (fdctx d) (fdret d) body' st' Hmb Hmc Hmr (tables_same _ _ _ _ Tb S02) I2 H3)
      as [K [I3 [S3 G3]]].
    unfold def_ok. unfold E in K. rewrite Hmain, Hnd, Hwc, Hwr, K. splits; frame.
  Qed.

  Lemma check_defs_gen_sound : forall eager ds st ds' st',
    (forall d, In d ds -> mono_ctx (fdctx d) = true /\ mono_ty (fdret d) = true /\ mono_term (fdbody d) = true) ->
    tables ts fs st -> minv st -> check_defs_gen eager ds st = COk (ds', st') ->
    forallb (def_ok ts fs) ds = true.
  Proof.
    intros eager ds. induction ds as [|d r IH]; intros st ds' st' Hm Tb I H; [reflexivity|].
    apply run_defs_cons in H. destruct H as (d' & st1 & r' & H1 & H2 & ->).
    destruct (Hm d (or_introl eq_refl)) as [Hc [Hr Hb]].
    destruct (def_check_gen_sound eager d st d' st1 Hc Hr Hb Tb I H1) as [Hd [I1 S1]].
    simpl. rewrite Hd. simpl. eapply IH; [|exact (tables_same _ _ _ _ Tb S1)|exact I1|exact H2].
    intros d0 Hd0. apply Hm. right. assumption.
  Qed.
End Defs.

Lemma defs_of_fdefs : forall ds, defs_of ds = fdefs ds.
Proof. induction ds as [|[d|d|d] r IH]; simpl; try rewrite IH; reflexivity. Qed.

Theorem check_gen_sound_mono : forall eager p q,
  mono_prog p = true -> check_gen eager p = COk q -> has_type_b p = true.
Proof.
  intros eager p q Hm H. apply run_check in H. destruct H as (st & defs & st1 & das & cos & Hb & Hdecls & Hdefs & _).
  destruct (build_symbol_table_spec p st Hb) as [Tb [Hn [Ht [Hc [Hd Hps]]]]].
  pose proof (mono_world_of_prog p Hm Hn) as W.
  unfold has_type_b. rewrite Hn. simpl.
  apply andb_true_iff. split.
  - unfold decls_ok. apply forallb_forall. intros td Hin. unfold tdecl_ok.
    destruct (Hps td Hin) as [Hp1 Hp2]. rewrite Hp1, Hp2. simpl.
    eapply check_type_decls_ok; try eassumption. intros td0 Hin0. exact (proj2 (Hps td0 Hin0)).
  - rewrite defs_of_fdefs in Hdefs.
    eapply check_defs_gen_sound; [exact W| |exact Tb|apply minv_start; assumption|exact Hdefs].
    intros d Hin. destruct (W_defs _ _ W d Hin). splits; auto. eapply mono_def_body; eassumption.
Qed.
