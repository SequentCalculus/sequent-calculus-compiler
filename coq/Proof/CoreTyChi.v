(* Proof/CoreTyChi.v (C12) - a statement typed by Sem/CoreCheck.v respects the discipline of the Rust type
   parameter of Term<C> ([chi_ok_*] of Lang/CoreSyn.v): the prdcns fields are those of the positions. *)
From Coq Require Import List ZArith NArith String Bool Lia.
From SCC Require Import Base.Sexp Lang.SynUtil Lang.CoreSyn Sem.FsCheck Sem.CoreCheck Proof.CoreInd Proof.CoreTyRules.
Import ListNotations.
Open Scope list_scope.

Section ChiOk.
  Variables (data codata : list ctydecl) (defs : list cdef).
  Notation ct := (ccheck_term data codata defs).
  Notation cs := (ccheck_stmt data codata defs).

  Lemma chi_args_eq : forall args,
    (fix go (l : list carg) : bool := match l with [] => true | y :: r => chi_ok_carg y && go r end) args
    = forallb chi_ok_carg args.
  Proof. induction args as [|a r IH]; simpl; [reflexivity | rewrite IH; reflexivity]. Qed.
  Lemma chi_cls_eq : forall c cls,
    (fix go (l : list cclause) : bool := match l with [] => true | y :: r => chi_ok_cclause c y && go r end) cls
    = forallb (chi_ok_cclause c) cls.
  Proof. intros c. induction cls as [|a r IH]; simpl; [reflexivity | rewrite IH; reflexivity]. Qed.

  Lemma cclauses_match_chi : forall side n cls xs, cclauses_match side n cls xs = None ->
    forall cl, In cl cls -> match cl with CClause c' _ _ _ => c' = side end.
  Proof.
    intros side n. induction cls as [|[c' x ctx body] cr IH]; intros xs H cl Hin; [contradiction|].
    destruct xs as [|sg xr]; [discriminate|]. apply cclauses_match_cons in H. destruct H as (H1 & _ & _ & _ & H).
    destruct Hin as [<-|Hin]; [exact H1 | eapply IH; eassumption].
  Qed.

  Lemma typed_chi_ok_all :
    (forall t G side ty, ct G side ty t = None -> chi_ok_cterm side t = true) /\
    (forall a G s, arg_typed data codata defs G a s -> chi_ok_carg a = true) /\
    (forall cl G, clause_typed data codata defs G cl -> match cl with CClause _ _ _ body => chi_ok_cstmt body = true end) /\
    (forall s G, cs G s = None -> chi_ok_cstmt s = true).
  Proof.
    apply core_mutind.
    - intros c v t G side ty H. apply ct_var in H. destruct H as [-> _]. simpl. apply ceq_chi_refl.
    - reflexivity.
    - intros a o b IHa IHb G side ty H. apply ct_op in H. destruct H as [_ [_ [Ha Hb]]]. simpl.
      rewrite (IHa _ _ _ Ha), (IHb _ _ _ Hb). reflexivity.
    - intros c v s t IHs G side ty H. apply ct_mu in H. destruct H as [-> [_ H]]. simpl.
      rewrite ceq_chi_refl, (IHs _ H). reflexivity.
    - intros c x args t F G side ty H. apply ct_xtor in H. destruct H as [-> [_ [n [d [sg [_ [_ [_ Ha]]]]]]]].
      cbn [chi_ok_cterm]. rewrite ceq_chi_refl, chi_args_eq. exact (args_typed_forallb _ _ _ _ _ _ _ F Ha).
    - intros c cls t F G side ty H. apply ct_xcase in H. destruct H as [-> [_ [n [d [_ [_ [Hm Hc]]]]]]].
      cbn [chi_ok_cterm]. rewrite ceq_chi_refl, chi_cls_eq. simpl. apply forallb_forall. intros cl Hin.
      rewrite Forall_forall in F, Hc. pose proof (cclauses_match_chi _ _ _ _ Hm cl Hin) as Hchi.
      pose proof (F cl Hin G (Hc cl Hin)) as Hb. destruct cl as [c' x ctx body]. subst c'. simpl.
      rewrite ceq_chi_refl, Hb. reflexivity.
    - intros pr IH G s H. unfold arg_typed in H. destruct (cbchi s); [|contradiction]. simpl. eapply IH; exact H.
    - intros k IH G s H. unfold arg_typed in H. destruct (cbchi s); [contradiction|]. simpl. eapply IH; exact H.
    - intros c x ctx body IH G H. unfold clause_typed in H. eapply IH; exact H.
    - intros pr t k IHp IHk G H. apply cs_cut in H. destruct H as [_ [Hp Hk]]. simpl.
      rewrite (IHp _ _ _ Hp), (IHk _ _ _ Hk). reflexivity.
    - intros so a b t e IHa IHb IHt IHe G H. apply cs_ifc in H. destruct H as [Ha [Hb [Ht He]]]. simpl.
      rewrite (IHa _ _ _ Ha), (IHt _ Ht), (IHe _ He).
      destruct b as [b'|]; [|reflexivity]. simpl in IHb. rewrite (IHb _ _ _ Hb). reflexivity.
    - intros nl a next IHa IHn G H. apply cs_print in H. destruct H as [Ha Hn]. simpl.
      rewrite (IHa _ _ _ Ha), (IHn _ Hn). reflexivity.
    - intros f args t F G H. apply cs_call in H. destruct H as [_ [d [_ Ha]]].
      cbn [chi_ok_cstmt]. rewrite chi_args_eq. exact (args_typed_forallb _ _ _ _ _ _ _ F Ha).
    - intros a t IH G H. apply cs_exit in H. destruct H as [_ Ha]. simpl. eapply IH; exact Ha.
  Qed.
  Definition typed_chi_ok := proj2 (proj2 (proj2 typed_chi_ok_all)).
End ChiOk.

