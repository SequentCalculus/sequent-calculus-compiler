(* C07, heap statements: a second non-vacuity example that crosses the register file.  The loop of Proof/AxHeapExample.v with
   twelve more integer parameters carried along (15 variables at the head of the loop, so every block pointer of the objects
   it allocates, the fields it loads and the variables it drops live in SPILL SLOTS; acquire_block into a spill slot while the
   reuse list is non-trivial, loads with the X10 evacuation).  Named AxCut, linearized by the model of the pass; all
   hypotheses of a64_codegen_simulates evaluated, the theorem applied, both machines computed. *)
From Coq Require Import String List ZArith NArith Bool Lia.
From SCC Require Import Base.Sexp Lang.AxSyn Sem.AxSem Sem.AxHeap Model.Backend Model.A64 Sem.A64Sem Sem.A64Wf
     Model.Linearize Model.LinCheck Proof.SimFrag Proof.A64SimAddr Proof.X86HAnn Proof.A64HSimTop Proof.A64HSimCor
     Proof.AxHeapExample.
From SCC Require Model.Heap Proof.AxHeapTyping Proof.X86HSimExample.
Import ListNotations.
Open Scope string_scope.
Open Scope N_scope.
Open Scope list_scope.

Definition wide_ids : list N := [30; 31; 32; 33; 34; 35; 36; 37; 38; 39; 40; 41].
Definition wide_ps : ctx := map (fun n => e (i "p" n)) wide_ids.

Definition wmain_body : stmt :=
  Create (i "k" 2) Cont None
    [ (i "Ret" 0, [e (i "r" 3)],
        Op (i "r" 3) Sum (i "w" 5) (i "s" 6) (PrintI64 true (i "s" 6) (Exit (i "s" 6)))) ]
  (Literal 0 (i "z" 4)
  (fold_right (fun n s => Literal (Z.of_N n) (i "p" n) s)
     (Call (i "loop" 0) ([e (i "n" 1); e (i "z" 4); ck (i "k" 2)] ++ wide_ps)) wide_ids)).

Definition wloop_ctx : ctx := [e (i "j" 10); e (i "acc" 11); ck (i "k" 12)] ++ wide_ps.
Definition wloop_body : stmt :=
  IfC Eq (i "j" 10) None
    (Op (i "acc" 11) Sum (i "p" 41) (i "res" 29) (Invoke (i "k" 12) (i "Ret" 0) Cont [e (i "res" 29)]))
    (Let (i "nil" 13) ListT (i "Nil" 0) []
    (Let (i "l1" 14) ListT (i "Cons" 0) [e (i "j" 10); pl (i "nil" 13)]
    (Let (i "l2" 15) ListT (i "Cons" 0) [e (i "j" 10); pl (i "l1" 14)]
    (Let (i "r" 16) RecT (i "R5" 0) [e (i "j" 10); e (i "acc" 11); pl (i "l2" 15); e (i "j" 10); pl (i "l2" 15)]
    (Switch (i "r" 16) RecT
      [ (i "R5" 0, [e (i "a" 17); e (i "b" 18); pl (i "l" 19); e (i "c" 20); pl (i "m" 21)],
          Switch (i "l" 19) ListT
            [ (i "Nil" 0, [], Invoke (i "k" 12) (i "Ret" 0) Cont [e (i "a" 17)]);
              (i "Cons" 0, [e (i "y" 22); pl (i "ys" 23)],
                 Switch (i "m" 21) ListT
                   [ (i "Nil" 0, [], Invoke (i "k" 12) (i "Ret" 0) Cont [e (i "y" 22)]);
                     (i "Cons" 0, [e (i "y2" 27); pl (i "ys2" 28)],
                        Literal 1 (i "one" 24)
                        (Op (i "j" 10) Sub (i "one" 24) (i "j2" 25)
                        (Op (i "acc" 11) Sum (i "y2" 27) (i "acc2" 26)
                        (Call (i "loop" 0) ([e (i "j2" 25); e (i "acc2" 26); ck (i "k" 12)] ++ wide_ps))))) ]) ]) ]))))).

Definition hxw_prog : prog :=
  mkp [mkd (i "main" 0) hmain_ctx wmain_body; mkd (i "loop" 0) wloop_ctx wloop_body] hx_types 50.
Definition hxw_lin : prog := linearize hxw_prog.
Definition hxw_code : list acode := match a64_compile hxw_lin 0 with Ok (cs, _, _) => cs | Err _ => [] end.

Open Scope Z_scope.
(* The linearized program and its code, evaluated once; the facts below are evaluated on these values, so that a checker
   without the VM does not run the two passes again for each of them. *)
Definition hxw_lin_v : prog := Eval vm_compute in hxw_lin.
Definition hxw_code_v : list acode := Eval vm_compute in hxw_code.
Lemma hxw_lin_eq : hxw_lin = hxw_lin_v.
Proof. vm_compute. reflexivity. Qed.
Lemma hxw_compiled : exists lc', a64_compile hxw_lin 0 = Ok (hxw_code_v, 2%nat, lc').
Proof. rewrite hxw_lin_eq. eexists. vm_compute. reflexivity. Qed.
Lemma hxw_code_eq : hxw_code = hxw_code_v.
Proof. destruct hxw_compiled as [lc' E]. unfold hxw_code. rewrite E. reflexivity. Qed.

Lemma hxw_hypotheses :
  prog_ok hxw_prog = true /\
  lin_check_prog hxw_lin = true /\ ann_check_prog hxw_lin = true /\ AxHeapTyping.entry_ext hxw_lin = true /\
  plain_names hxw_lin = true /\ plain_types hxw_lin = true /\ lits_i64 hxw_lin = true /\ tags_i64 hxw_lin = true /\
  (exists lc', a64_compile hxw_lin 0 = Ok (hxw_code, 2%nat, lc')) /\ asm_wf hxw_code = None /\ code_small hxw_code = true /\
  args_i64 [3; 100] = true /\ X86HSimExample.fits_run 4000 hxw_lin [3; 100] = true.
Proof.
  set (fuel := 4000%nat). (* 4000 constructors, otherwise retyped with the goal at every step *)
  pose proof hxw_compiled as C. rewrite hxw_code_eq. rewrite hxw_lin_eq in *.
  repeat apply conj; try exact C; vm_compute; reflexivity.
Qed.

(* both sides evaluated: 6 from the three iterations, + 41 (the last extra parameter, read back from its spill slot), + the
   captured 100; the code stores block pointers into spill slots (`STR X0, [SP, _]` occurs only in acquire_block into a
   spill slot) and evacuates X10 (`STR X10, [SP, 2040]`) *)
Lemma hxw_runs :
  run_linear 4000 hxw_lin [3; 100] = ([(true, 147)], OExit 147) /\
  fst (run_a64 40 4000 hxw_code [3; 100]) = ([(true, 147)], OExit 147) /\
  existsb (fun c => match c with STR (X 0) SP _ => true | _ => false end) hxw_code = true /\
  existsb (fun c => match c with STR (X 10) SP 2040 => true | _ => false end) hxw_code = true.
Proof. rewrite hxw_code_eq, hxw_lin_eq. repeat apply conj; vm_compute; reflexivity. Qed.

Lemma hxw_simulated : exists outer inner, fst (run_a64 outer inner hxw_code [3; 100]) = run_linear 4000 hxw_lin [3; 100].
Proof.
  apply (a64_codegen_simulates_checked _ _ 2%nat _ _ (proj2 hxw_hypotheses)); [reflexivity|rewrite (proj1 hxw_runs); discriminate].
Qed.
