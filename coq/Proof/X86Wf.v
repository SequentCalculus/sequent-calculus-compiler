(* Arithmetic facts about the code the x86-64 back end emits.  For C14: the jump-table stride, and encodability of
   everything the instruction-selection functions of the model emit, for all operands.  For C13 (second half): the
   calling convention - stack alignment at the print call, pushes matched by pops, prologue against epilogue. *)
From Coq Require Import List ZArith NArith String Bool Lia FMapPositive.
From SCC Require Import Base.Sexp Lang.AxSyn Model.Backend Model.X86 Sem.X86Sem Sem.X86Wf Generated.Constants Proof.X86State.
Import ListNotations.
Open Scope Z_scope.

(* jump tables: entry k lies jump_length k bytes after the table label *)
(* addresses assigned by the image builder to a run of `jmp near` entries *)
Fixpoint addrs (cs : list xcode) (a : Z) : list Z :=
  match cs with [] => [] | c :: r => a :: addrs r (a + isize c) end.
Lemma addrs_table (ls : list string) (a : Z) (k : nat) :
  (k < List.length ls)%nat ->
  nth k (addrs (map JMPLN ls) a) 0 = a + jump_length (N.of_nat k).
Proof.
  revert a k; induction ls as [|l ls IH]; intros a k Hk; cbn [List.length] in Hk; [lia|].
  destruct k as [|k]; cbn [map addrs nth].
  - unfold jump_length; cbn; lia.
  - rewrite IH by lia. unfold jump_length. cbn [isize]. lia.
Qed.
(* the image builder records exactly these addresses *)
Lemma build_addr_of cs : forall i a im,
  (forall j, (i <= j)%positive -> PM.find j (addr_of im) = None) ->
  forall k, (k < List.length cs)%nat ->
    PM.find (Pos.of_nat (Pos.to_nat i + k)) (addr_of (build cs i a im)) = Some (nth k (addrs cs a) 0).
Proof.
  induction cs as [|c cs IH]; intros i a im Hfresh k Hk; cbn [List.length] in Hk; [lia|].
  cbn [build addrs].
  set (im' := {| code := _; addr_of := PM.add i a (addr_of im); index_at := _; labels := _; len := i |}).
  destruct k as [|k].
  - rewrite Nat.add_0_r, Pos2Nat.id. cbn [nth].
    (* the entry for i is written now and never overwritten by later indices *)
    assert (G : forall cs' j b im0, (i < j)%positive -> PM.find i (addr_of (build cs' j b im0)) = PM.find i (addr_of im0)).
    { induction cs' as [|c' cs' IH']; intros j b im0 Hj; cbn [build]; [reflexivity|].
      rewrite IH' by lia. cbn [addr_of]. apply PM.gso. lia. }
    rewrite G by lia. subst im'; cbn [addr_of]. apply PM.gss.
  - replace (Pos.of_nat (Pos.to_nat i + S k)) with (Pos.of_nat (Pos.to_nat (Pos.succ i) + k)) by (f_equal; lia).
    cbn [nth]. apply IH; [|lia].
    intros j Hj. subst im'; cbn [addr_of]. rewrite PM.gso by lia. apply Hfresh. lia.
Qed.

Definition temp_enc (t : xtemp) : Prop :=
  match t with XR r => (r < 16)%N | XS p => (p < SPILL_NUM)%N end.

Lemma stack_offset_fits p : (p < SPILL_NUM)%N -> fits32 (stack_offset p) = true.
Proof.
  intros H. unfold fits32, stack_offset. change SPILL_SPACE with 2048.
  assert (0 <= Z.of_N p < 256) by (change SPILL_NUM with 256%N in H; lia).
  apply andb_true_iff; split; apply Z.leb_le; lia.
Qed.

Ltac enc :=
  repeat match goal with
  | |- Forall _ (_ ++ _) => apply Forall_app; split
  | |- Forall _ (_ :: _) => constructor
  | |- Forall _ [] => constructor
  end;
  cbn [instr_wf]; rewrite ?stack_offset_fits by assumption;
  repeat (apply andb_true_iff; split); try reflexivity;
  try (apply N.ltb_lt; first [assumption | (vm_compute; reflexivity)]).

Lemma arith_encodable o t s1 s2 :
  o <> Prod \/ (forall p, t <> XS p \/ (t <> s1 /\ t <> s2)) ->
  temp_enc t -> temp_enc s1 -> temp_enc s2 ->
  Forall (fun c => instr_wf c = true) (x_arith o t s1 s2).
Proof.
  intros NP T S1 S2.
  destruct o; cbn [x_arith]; unfold x_div, x_rem, op_commutative, sub, div_core;
    destruct t as [tr|tp], s1 as [r1|p1], s2 as [r2|p2]; cbn [temp_enc] in *;
    repeat match goal with |- context [xtemp_eqb ?a ?b] => destruct (xtemp_eqb a b) eqn:? end;
    repeat match goal with |- context [N.eqb ?a ?b] => destruct (N.eqb a b) eqn:? end;
    cbn [move_to_register move_from_register add_to_register add_to_spill mul_to_register mul_to_spill
         sub_to_register sub_to_spill app];
    try solve [enc].
  (* what remains are the two `imul [mem], reg` forms: target spill slot aliasing an operand *)
  all: exfalso; destruct NP as [NP|NP]; [congruence|];
    match goal with
    | H : xtemp_eqb (XS ?a) ?b = true |- _ =>
        destruct (NP a) as [NP'|[NP1 NP2]]; [congruence|];
        cbn in H; try discriminate; apply N.eqb_eq in H; subst; congruence
    end.
Qed.

Lemma load_immediate_encodable t i :
  temp_enc t -> (-9223372036854775808 <= i <= 9223372036854775807) ->
  Forall (fun c => instr_wf c = true) (x_load_immediate t i).
Proof.
  intros T R. unfold x_load_immediate. destruct t as [r|p]; cbn [temp_enc] in T.
  - enc; apply Z.leb_le; lia.
  - destruct (fits_i32 i) eqn:F.
    + constructor; [|constructor]. cbn [instr_wf]. rewrite stack_offset_fits by assumption.
      change (fits32 i) with (fits_i32 i). rewrite F. reflexivity.
    + enc; apply Z.leb_le; lia.
Qed.

Lemma mov_encodable t s : temp_enc t -> temp_enc s -> Forall (fun c => instr_wf c = true) (x_mov t s).
Proof.
  intros T S. unfold x_mov. destruct s as [sr|sp], t as [tr|tp]; cbn [temp_enc] in *;
    cbn [move_to_register move_from_register app]; enc.
Qed.

Lemma compare_encodable a b : temp_enc a -> temp_enc b -> Forall (fun c => instr_wf c = true) (compare a b).
Proof. intros A B. destruct a, b; cbn [temp_enc compare] in *; enc. Qed.

(* C13: the calling convention, arithmetically.
   sp_delta: the net change of rsp caused by a straight-line instruction list *)
Definition sp_delta1 (c : xcode) : Z :=
  match c with
  | PUSH _ => -8 | POP _ => 8
  | SUBI r i => if N.eqb r STACK then - i else 0
  | ADDI r i => if N.eqb r STACK then i else 0
  | _ => 0
  end.
Definition sp_delta (cs : list xcode) : Z := fold_right (fun c acc => sp_delta1 c + acc) 0 cs.
Lemma sp_delta_cons c l : sp_delta (c :: l) = sp_delta1 c + sp_delta l.
Proof. reflexivity. Qed.
Lemma sp_delta_app a b : sp_delta (a ++ b) = sp_delta a + sp_delta b.
Proof.
  induction a as [|c a IH]; [reflexivity|].
  change (sp_delta ((c :: a) ++ b)) with (sp_delta1 c + sp_delta (a ++ b)).
  change (sp_delta (c :: a)) with (sp_delta1 c + sp_delta a). rewrite IH. lia.
Qed.

Lemma sp_delta_movs {X} (f : X -> xcode) (l : list X) :
  (forall x, sp_delta1 (f x) = 0) -> sp_delta (map f l) = 0.
Proof. intros H. induction l as [|x l IH]; cbn [map sp_delta fold_right]; [reflexivity|]. fold (sp_delta (map f l)). rewrite H, IH. reflexivity. Qed.
Lemma sp_delta_push l : sp_delta (map PUSH l) = -8 * Z.of_nat (List.length l).
Proof. induction l as [|x l IH]; cbn [map sp_delta fold_right List.length]; [reflexivity|]. fold (sp_delta (map PUSH l)). rewrite IH. cbn [sp_delta1]. lia. Qed.
Lemma sp_delta_pop l : sp_delta (map POP l) = 8 * Z.of_nat (List.length l).
Proof. induction l as [|x l IH]; cbn [map sp_delta fold_right List.length]; [reflexivity|]. fold (sp_delta (map POP l)). rewrite IH. cbn [sp_delta1]. lia. Qed.

Lemma even_pad_mod16 (k : nat) : (-8 * Z.of_nat k + (if Nat.even k then -8 else 0)) mod 16 = 8.
Proof.
  destruct (Nat.even k) eqn:E.
  - apply Nat.even_spec in E as (h & ->). replace (-8 * Z.of_nat (2 * h) + -8) with (8 + (- Z.of_nat h - 1) * 16) by lia.
    rewrite Z.mod_add by lia. reflexivity.
  - assert (O : Nat.odd k = true) by (rewrite <- Nat.negb_even, E; reflexivity).
    apply Nat.odd_spec in O as (h & ->). replace (-8 * Z.of_nat (2 * h + 1) + 0) with (8 + (- Z.of_nat h - 1) * 16) by lia.
    rewrite Z.mod_add by lia. reflexivity.
Qed.

(* with rsp = 8 mod 16 in the body (see body_alignment below), rsp = 0 mod 16 at the call, for
   EVERY context: any number of live variables of any kinds *)
Theorem save_caller_save_alignment fb regs :
  sp_delta (save_caller_save_registers fb regs) mod 16 = 8.
Proof.
  unfold save_caller_save_registers. rewrite !sp_delta_app.
  rewrite sp_delta_movs by (intros [a b]; reflexivity). rewrite sp_delta_push.
  rewrite skipn_length.
  set (k := (List.length regs - backup_used fb regs)%nat).
  replace (sp_delta (if Nat.even k then [SUBI STACK (address 1)] else [])) with (if Nat.even k then -8 else 0)
    by (destruct (Nat.even k); reflexivity).
  rewrite Z.add_0_l. apply even_pad_mod16.
Qed.
Theorem save_restore_balanced fb regs :
  sp_delta (save_caller_save_registers fb regs) + sp_delta (restore_caller_save_registers fb regs) = 0.
Proof.
  unfold save_caller_save_registers, restore_caller_save_registers. rewrite !sp_delta_app.
  rewrite (sp_delta_movs (fun or_ : N * N => MOV (fb + fst or_)%N (snd or_))) by (intros [a b]; reflexivity).
  rewrite (sp_delta_movs (fun or_ : N * N => MOV (snd or_) (fb + fst or_)%N)) by (intros [a b]; reflexivity).
  rewrite sp_delta_push, sp_delta_pop, rev_length.
  set (k := (List.length regs - backup_used fb regs)%nat).
  replace (sp_delta (if Nat.even k then [SUBI STACK (address 1)] else [])) with (if Nat.even k then -8 else 0)
    by (destruct (Nat.even k); reflexivity).
  replace (sp_delta (if Nat.even k then [ADDI STACK (address 1)] else [])) with (if Nat.even k then 8 else 0)
    by (destruct (Nat.even k); reflexivity).
  match goal with |- context [-8 * Z.of_nat ?a + _] =>
    match goal with |- context [8 * Z.of_nat ?b] => change b with a end end.
  generalize (Nat.even k); intros []; lia.
Qed.
(* the registers popped after the call are the pushed ones, in reverse order; the register-to-register
   backups are undone pairwise *)
Theorem restore_mirrors_save fb regs :
  let used := backup_used fb regs in
  exists movs_out movs_back pad_out pad_back,
    save_caller_save_registers fb regs = movs_out ++ map PUSH (skipn used regs) ++ pad_out /\
    restore_caller_save_registers fb regs = movs_back ++ pad_back ++ map POP (rev (skipn used regs)) /\
    movs_back = map (fun c => match c with MOV a b => MOV b a | c => c end) movs_out.
Proof.
  cbv zeta. unfold save_caller_save_registers, restore_caller_save_registers.
  eexists _, _, _, _. split; [reflexivity|]. split; [reflexivity|].
  rewrite map_map. apply map_ext. intros [a b]. reflexivity.
Qed.

(* prologue / epilogue *)
Theorem body_alignment n cs : setup n = Ok cs -> sp_delta cs mod 16 = 0.
Proof.
  unfold setup, rbind. destruct (move_arguments n) as [ma|] eqn:M; [|discriminate].
  intros E; injection E as <-. rewrite !sp_delta_cons.
  assert (sp_delta ma = 0) as ->.
  { clear - M. revert ma M. induction n as [|m IH]; cbn [move_arguments]; intros ma M.
    - injection M as <-. reflexivity.
    - destruct (Nat.ltb 5 (S m)); [discriminate|]. destruct (move_arguments m) as [r|]; cbn [rbind] in M; [|discriminate].
      injection M as <-. cbn [app sp_delta fold_right sp_delta1]. fold (sp_delta r). rewrite (IH r eq_refl). reflexivity. }
  vm_compute. reflexivity.
Qed.
Theorem prologue_epilogue_balanced n cs :
  setup n = Ok cs -> sp_delta cs + sp_delta (removelast cleanup) = 0.
Proof.
  unfold setup, rbind. destruct (move_arguments n) as [ma|] eqn:M; [|discriminate].
  intros E; injection E as <-. rewrite !sp_delta_cons.
  assert (sp_delta ma = 0) as ->.
  { clear - M. revert ma M. induction n as [|m IH]; cbn [move_arguments]; intros ma M.
    - injection M as <-. reflexivity.
    - destruct (Nat.ltb 5 (S m)); [discriminate|]. destruct (move_arguments m) as [r|]; cbn [rbind] in M; [|discriminate].
      injection M as <-. cbn [app sp_delta fold_right sp_delta1]. fold (sp_delta r). rewrite (IH r eq_refl). reflexivity. }
  vm_compute. reflexivity.
Qed.
(* the epilogue pops exactly the callee-saved registers the prologue pushed, in reverse order *)
Theorem epilogue_restores_callee_saved :
  flat_map (fun c => match c with POP r => [r] | _ => [] end) cleanup =
  rev (flat_map (fun c => match c with PUSH r => [r] | _ => [] end)
         (match setup 0 with Ok cs => cs | Err _ => [] end)) /\
  flat_map (fun c => match c with PUSH r => [r] | _ => [] end) (match setup 0 with Ok cs => cs | Err _ => [] end)
  = Sem.X86Sem.callee_saved.
Proof. split; vm_compute; reflexivity. Qed.
