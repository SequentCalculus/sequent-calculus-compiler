(* C06, forward simulation of the x86-64 code generator, part 4: programs of the integer fragment.
   - `int_frag`: every variable is `ext i64`, statements are Substitute / Call / Literal / Op / PrintI64 /
     IfC / Exit;
   - the frame above the spill area (callee-saved registers and the return marker pushed by the prologue)
     and the epilogue `cleanup`;
   - `runs fuel s`: the code emitted for a statement, placed in an image in which the definitions' labels and
     `cleanup` resolve, runs to the machine's observation (results and undefined operations; print trace
     included); one lemma per statement form (`runs_*`), used by every fragment;
   - `sim_exec`: the induction on the fuel of the linear machine for the integer fragment. *)
From Coq Require Import List ZArith NArith String Bool Lia FMapPositive.
From SCC Require Import Base.Sexp Lang.AxSyn Sem.AxSem Model.ParMoves Model.Backend Model.X86 Sem.X86Sem Sem.X86Wf
     Model.Linearize Model.LinCheck Generated.Constants Proof.LinBasics
     Proof.X86State Proof.X86Sel Proof.X86Exec Proof.X86ParMoves Proof.SubstGraph Proof.X86Subst
     Proof.X86SimRel Proof.X86SimStmt Proof.X86SimPrint.
From SCC Require Export Proof.SimFrag.
Import ListNotations.
Open Scope Z_scope.
Open Scope list_scope.
(* the definitions of Proof/SimFrag.v under this module's name, for qualified uses *)
Notation int_frag := SimFrag.int_frag (only parsing).
Notation good := SimFrag.good (only parsing).
Notation lookup_of_in := SimFrag.lookup_of_in (only parsing).
Notation lookup_label_find_def := SimFrag.lookup_label_find_def (only parsing).
Notation not_oof := SimFrag.not_oof (only parsing).
Notation good_not_oof := SimFrag.good_not_oof (only parsing).


Definition outer_ok (s : xstate) (sp : Z) : Prop :=
  sp + SPILL_SPACE + 56 = STACK_TOP /\
  kget s (sp + SPILL_SPACE) = Some (callee_marker 15) /\
  kget s (sp + SPILL_SPACE + 8) = Some (callee_marker 14) /\
  kget s (sp + SPILL_SPACE + 16) = Some (callee_marker 13) /\
  kget s (sp + SPILL_SPACE + 24) = Some (callee_marker 12) /\
  kget s (sp + SPILL_SPACE + 32) = Some (callee_marker 3) /\
  kget s (sp + SPILL_SPACE + 40) = Some (callee_marker 2) /\
  kget s (sp + SPILL_SPACE + 48) = Some RET_MARKER.

Lemma above_eq_outer s s' sp : above_eq s s' sp -> outer_ok s sp -> outer_ok s' sp.
Proof.
  intros (_ & K) (A & B). split; [exact A|]. change SPILL_SPACE with 2048 in *.
  rewrite !K by lia. exact B.
Qed.
Lemma frame_eq_above s s' sp : sp_ok sp -> frame_eq s s' sp -> above_eq s s' sp -> True.
Proof. auto. Qed.
Lemma frame_eq_outer s s' sp : sp_ok sp -> frame_eq s s' sp -> outer_ok s sp -> outer_ok s' sp.
Proof.
  intros SP (_ & _ & K) (A & B). split; [exact A|]. change SPILL_SPACE with 2048 in *.
  assert (G : forall a, sp + 2048 <= a -> kget s' a = kget s a).
  { intros a Ha. unfold kget. apply K. intros p P E.
    destruct (slot_addr_facts sp p SP P) as (_ & _ & _ & _ & NN).
    apply key_inj in E; [|unfold sp_ok, STACK_LIMIT, STACK_TOP in SP; lia|exact NN].
    unfold slot_addr, stack_offset in E. change SPILL_SPACE with 2048 in E. lia. }
  rewrite !G by lia. exact B.
Qed.

Section Epilogue.
Variable im : image.

Lemma step_ADDI_frame s x : rget s 0%N = Some x -> 0 <= x <= STACK_TOP ->
  step im (ADDI STACK SPILL_SPACE) s = Next (set_flags (rset s 0%N (Some (x + 2048))) None).
Proof.
  intros R K. change (ADDI STACK SPILL_SPACE) with (ADDI 0%N 2048). cbn [step]. change (fits32 2048) with true. cbv iota.
  unfold need. rewrite R. rewrite wrap_small; [reflexivity|]. unfold min_int, max_int, two63, STACK_TOP in *. lia.
Qed.

(* from `cleanup` the run ends with the value of rax, the entry rsp and the entry callee-saved registers *)
Lemma epilogue_ok pcc s sp z :
  code_at im pcc cleanup -> frame_ok s sp -> outer_ok s sp -> rget s RETURN1 = Some z ->
  finishes im pcc s (finish (out s) (OExit z)).
Proof.
  intros CA (SP & _) (TOP & K15 & K14 & K13 & K12 & K3 & K2 & KR) RAX.
  change SPILL_SPACE with 2048 in *. unfold STACK_TOP in TOP.
  set (q := [15; 14; 13; 12; 3; 2]%N).
  change cleanup with ([LAB "cleanup"; ADDI STACK SPILL_SPACE] ++ map POP q ++ [RET]) in CA.
  apply code_at_app in CA as [CA0 CA]. apply code_at_app in CA as [CA1 CA2]. apply code_at_cons in CA2 as [CR _].
  set (y := sp + 2048) in *. set (s1 := set_flags (rset s 0%N (Some y)) None).
  assert (E0 : exec_straight im [LAB "cleanup"; ADDI STACK SPILL_SPACE] s = Some s1).
  { cbn [exec_straight]. change (step im (LAB "cleanup") s) with (Next s). cbv iota.
    rewrite (step_ADDI_frame s sp SP) by (unfold STACK_TOP; lia). reflexivity. }
  assert (SP1 : rget s1 0%N = Some y) by apply rget_rset_same.
  assert (E1 : exec_straight im (map POP q) s1 = Some (pops q s1 y)).
  { apply exec_pops; [exact SP1|..]; unfold q, y, STACK_LIMIT, STACK_TOP in *; cbn [List.length]; zlia. }
  eapply exec_to_finishes.
  { eapply exec_to_trans; [apply (exec_straight_exec_to im _ pcc s s1 CA0 E0)|apply (exec_straight_exec_to im _ _ s1 _ CA1 E1)]. }
  (* the state after the pops: each register holds the word pushed for it *)
  set (st := pops q s1 y).
  assert (REG : forall j r, nth_error q j = Some r -> kget s (y + 8 * Z.of_nat j) = Some (callee_marker r) ->
                rget st r = Some (callee_marker r)).
  { intros j r Hj <-. apply (rget_pops_at q s1 y j r); [unfold q; repeat constructor; cbn [In]; lia|unfold q; cbn [In]; lia|exact Hj]. }
  assert (RSP : rget st 0%N = Some (y + 48)) by apply (rget_pops_sp q s1 y SP1).
  assert (R4 : rget st 4%N = Some z).
  { unfold st. rewrite rget_pops_other; [|discriminate|unfold q; cbn [In]; lia].
    unfold s1. rewrite rget_set_flags, rget_rset_other by discriminate. exact RAX. }
  assert (ST : step im RET st = Done (rset st 0%N (Some (y + 48 + 8)))).
  { cbn [step]. unfold need, withm. rewrite RSP, mload_stk by stk. unfold st. rewrite kget_pops.
    change (kget s1 (y + 48)) with (kget s (y + 48)). rewrite KR. reflexivity. }
  pose proof (finishes_done im _ RET st _ CR ST) as FD.
  assert (OUT : out st = out s) by apply (proj2 (pops_frame q s1 y)).
  rewrite out_rset, OUT in FD.
  replace (OExit z) with (final_check (rset st 0%N (Some (y + 48 + 8)))); [exact FD|].
  unfold final_check. rewrite rget_rset_same.
  replace (y + 48 + 8 =? STACK_TOP) with true by (symmetry; apply Z.eqb_eq; unfold STACK_TOP; lia).
  cbn [negb callee_saved forallb]. rewrite !rget_rset_other by discriminate.
  rewrite (REG 5%nat 2%N eq_refl K2), (REG 4%nat 3%N eq_refl K3), (REG 3%nat 12%N eq_refl K12),
    (REG 2%nat 13%N eq_refl K13), (REG 1%nat 14%N eq_refl K14), (REG 0%nat 15%N eq_refl), R4, !Z.eqb_refl; [reflexivity|].
  rewrite <- K15. f_equal. lia.
Qed.
End Epilogue.

Lemma is_hash_app_ s : is_hash_label (s +++ "_") = true -> is_hash_label s = true.
Proof. exact (hash_name_app_ s). Qed.

(* progress: a linearly well-typed statement of the fragment does not get stuck *)
Lemma has_ext_lookup_int CL c e st sp a : rel CL c e st sp -> has_ext c a = true -> exists x, lookup_int e a = Some x.
Proof.
  intros R H. unfold has_ext, has in H. destruct (lookup_b c (idn a)) as [b|] eqn:L; [|discriminate].
  apply lookup_b_Some in L as [Hin Hid]. apply andb_true_iff in H as [K T]. apply chi_eqb_eq in K. apply ty_eqb_eq in T.
  assert (I : In (idn a) (env_ids e)).
  { rewrite (rel_ids R), <- Hid. now apply In_ids. }
  destruct (lookup_of_in e _ I) as (v & Lv). destruct (lookup_nth e _ _ Lv) as (i & y & Hi & Ey).
  destruct (rel_vals R i y v Hi) as (b' & Hb' & V).
  destruct (env_ctx_nth c e i y v (rel_ids R) Hi) as (b0 & Hb0 & Eb0). assert (b0 = b') by congruence. subst b0.
  apply In_nth_error in Hin as (i' & Hi').
  assert (i' = i) by (eapply (ids_nth_inj c i' i b b'); eauto using (rel_nodup R); congruence). subst i'.
  assert (b' = b) by congruence. subst b'.
  inversion V; subst; [|congruence]. exists z. unfold lookup_int, lookup_id. now rewrite Lv.
Qed.
Lemma has_lookup_id CL c e st sp a k t : rel CL c e st sp -> has c a k t = true -> exists v, lookup_id e a = Some v.
Proof.
  intros R H. unfold has in H. destruct (lookup_b c (idn a)) as [b|] eqn:L; [|discriminate].
  apply lookup_b_Some in L as [Hin Hid]. apply lookup_of_in. rewrite (rel_ids R), <- Hid. now apply In_ids.
Qed.

(* every definition's label resolves to the code emitted for its body, and `cleanup` to the epilogue *)
Definition defs_at (im : image) (p : prog) : Prop := forall d, In d (pdefs p) ->
  exists pcd lcd cd lcd', find_label (labels im) (show_ident (dname d) +++ "_") = Some pcd /\
    PM.find pcd (code im) = Some (LAB (show_ident (dname d) +++ "_")) /\
    xcs (ptypes p) (dbody d) (dctx d) lcd = Ok (cd, lcd') /\
    code_at im (Pos.succ pcd) cd /\ labels_at_nh im (Pos.succ pcd) cd.
Definition cleanup_at (im : image) : Prop :=
  exists pcc, find_label (labels im) "cleanup" = Some pcc /\ code_at im pcc cleanup.

Section Main.
Variable im : image.
Variable p : prog.
Variable sp : Z.
Variable CL : Z -> ident -> list clause -> Prop.
Local Notation rel := (rel CL).
Hypothesis DEFS : defs_at im p.
Hypothesis CLEAN : cleanup_at im.
Hypothesis LIN : forall d, In d (pdefs p) -> lin_check (sigs_of p) (dctx d) (dbody d) = true.

(* `runs fuel s`: wherever the code of `s` sits in the image, from any related state the ISA run ends with
   what the linear machine observes within `fuel` steps.  One lemma per statement form gives `runs (S fuel)`
   of the statement from `runs fuel` of its continuations; the fragments differ only in which forms occur. *)
Definition runs (fuel : nat) (s : stmt) : Prop :=
  forall c e ot st pc code lc lc',
    lin_check (sigs_of p) c s = true ->
    xcs (ptypes p) s c lc = Ok (code, lc') -> code_at im pc code -> labels_at_nh im pc code ->
    rel c e st sp -> outer_ok st sp -> out st = ot ->
    not_oof (exec_linear fuel p e s ot) -> finishes im pc st (exec_linear fuel p e s ot).

Lemma runs_0 s : runs 0 s.
Proof. intros c e ot st pc code lc lc' _ _ _ _ _ _ _ G. exfalso. apply G. reflexivity. Qed.

(* after a step that leaves the frame above the spill area and the output alone *)
Lemma runs_next fuel next c' e' st s' pc' code lc lc' :
  runs fuel next -> lin_check (sigs_of p) c' next = true ->
  xcs (ptypes p) next c' lc = Ok (code, lc') -> code_at im pc' code -> labels_at_nh im pc' code ->
  rel c' e' s' sp -> frame_eq st s' sp -> outer_ok st sp ->
  not_oof (exec_linear fuel p e' next (out st)) -> finishes im pc' s' (exec_linear fuel p e' next (out st)).
Proof.
  intros IH LC CS CA LA R' FE OK G.
  apply (IH c' e' (out st) s' pc' code lc lc' LC CS CA LA R'); [|exact (proj1 (proj2 FE))|exact G].
  exact (frame_eq_outer st s' sp (proj2 (rel_frame R')) FE OK).
Qed.

Lemma runs_substitute fuel re next : runs fuel next -> runs (S fuel) (Substitute re next).
Proof.
  intros IH c e ot st pc code lc lc' LC CS CA LA R OK <- G. cbn [exec_linear] in G |- *.
  cbn [lin_check] in LC. apply andb_true_iff in LC as [_ LC]. apply andb_true_iff in LC as [LCs LC].
  rewrite forallb_forall in LCs.
  destruct (lookups_total e (map snd re)) as (vs & LK & LV).
  { intros x Hx. apply in_map_iff in Hx as (q & <- & Hq). exact (has_lookup_id CL c e st sp _ _ _ R (LCs q Hq)). }
  destruct (bind_total (map (fun r : binding * ident => bvar (fst r)) re) vs) as (e' & BD); [rewrite LV, !map_length; reflexivity|].
  rewrite LK, BD in G |- *.
  destruct (cs_substitute _ _ _ _ _ _ _ CS) as (c1 & lc1 & c2 & c3 & WC & CE & NX & ->).
  assert (NDn : NoDup (new_ids re)) by (rewrite <- ids_new; exact (lin_nodup _ _ _ LC)).
  rewrite app_assoc in CA, LA. apply code_at_app in CA as [CA2 CA3]. apply labels_at_nh_app in LA as [LA2 LA3].
  destruct (sim_substitute im CL c e st sp re vs e' c1 lc lc1 c2 pc R NDn LCs LK BD WC CE CA2 LA2) as (s' & X & R' & FE).
  eapply exec_to_finishes; [exact X|]. exact (runs_next fuel next _ e' st s' _ c3 lc1 lc' IH LC NX CA3 LA3 R' FE OK G).
Qed.

Lemma runs_call fuel label args :
  (forall d, In d (pdefs p) -> runs fuel (dbody d)) -> runs (S fuel) (Call label args).
Proof.
  intros IH c e ot st pc code lc lc' LC CS CA LA R OK OUT G. cbn [exec_linear] in G |- *.
  cbn [lin_check] in LC. apply andb_true_iff in LC as [_ LC].
  destruct (lookup_label (sigs_of p) label) as [ps|] eqn:LL; [|discriminate].
  destruct (lookup_label_find_def p label ps LL) as (d & FD & <-).
  destruct (bind_total (vars (dctx d)) (map snd e)) as (e' & BD).
  { apply sig_match_iff, same_kt_length in LC. unfold vars. rewrite !map_length, (rel_length R). auto. }
  rewrite FD, BD in G |- *.
  unfold find_def in FD. apply find_some in FD as [IN EQ]. apply ident_eqb_eq in EQ. subst label.
  destruct (cs_call _ _ _ _ _ _ _ CS) as (-> & _).
  destruct (DEFS d IN) as (pcd & lcd & cd & lcd' & FL & CLb & CSd & CAd & LAd).
  apply code_at_cons in CA as [CJ _].
  eapply exec_to_finishes.
  { eapply exec_jump; [exact CJ|cbn [step]; unfold goto_label; rewrite FL; reflexivity|].
    eapply exec_next; [exact CLb|reflexivity|apply exec_refl]. }
  apply (IH d IN (dctx d) e' ot st _ cd lcd lcd' (LIN d IN) CSd CAd LAd); auto.
  exact (bind_rel CL c e st sp (dctx d) e' R (lin_nodup _ _ _ (LIN d IN)) LC BD).
Qed.

Lemma runs_literal fuel n v next : runs fuel next -> runs (S fuel) (Literal n v next).
Proof.
  intros IH c e ot st pc code lc lc' LC CS CA LA R OK <- G. cbn [exec_linear] in G |- *.
  cbn [lin_check] in LC. apply andb_true_iff in LC as [_ LC].
  destruct (cs_literal _ _ _ _ _ _ _ _ CS) as (tv & c2 & TV & NX & ->).
  destruct (sim_literal im CL c e st sp n v tv R (lin_nodup _ _ _ LC) TV) as (s' & E & R' & FE).
  apply code_at_app in CA as [CA1 CA2]. apply labels_at_nh_app in LA as [_ LA2].
  eapply exec_to_finishes; [apply (exec_straight_exec_to im _ pc st s' CA1 E)|].
  exact (runs_next fuel next _ _ st s' _ c2 lc lc' IH LC NX CA2 LA2 R' FE OK G).
Qed.

Lemma runs_op fuel a op b v next : runs fuel next -> runs (S fuel) (Op a op b v next).
Proof.
  intros IH c e ot st pc code lc lc' LC CS CA LA R OK <- G. cbn [exec_linear] in G |- *.
  cbn [lin_check] in LC. apply andb_true_iff in LC as [_ LC]. apply andb_true_iff in LC as [LCo LC].
  apply andb_true_iff in LCo as [HA HB].
  destruct (has_ext_lookup_int CL c e st sp a R HA) as (x & LA1).
  destruct (has_ext_lookup_int CL c e st sp b R HB) as (y & LB1).
  rewrite LA1, LB1 in G |- *.
  destruct (cs_op _ _ _ _ _ _ _ _ _ _ CS) as (tv & ta & tb & c2 & TV & TA & TB & NX & ->).
  apply code_at_app in CA as [CA1 CA2]. apply labels_at_nh_app in LA as [_ LA2].
  destruct (eval_op op x y) as [z|w] eqn:EV.
  - destruct (sim_op im CL c e st sp a op b v x y z tv ta tb R (lin_nodup _ _ _ LC) LA1 LB1 EV TV TA TB) as (s' & E & R' & FE).
    eapply exec_to_finishes; [apply (exec_straight_exec_to im _ pc st s' CA1 E)|].
    exact (runs_next fuel next _ _ st s' _ c2 lc lc' IH LC NX CA2 LA2 R' FE OK G).
  - destruct (sim_op_undef im CL c e st sp a op b v x y w tv ta tb R (lin_nodup _ _ _ LC) LA1 LB1 EV TV TA TB) as (s' & E & <-).
    exact (exec_undef_finishes im pc _ st w s' CA1 E).
Qed.

Lemma runs_print fuel nl v next : runs fuel next -> runs (S fuel) (PrintI64 nl v next).
Proof.
  intros IH c e ot st pc code lc lc' LC CS CA LA R OK <- G. cbn [exec_linear] in G |- *.
  cbn [lin_check] in LC. apply andb_true_iff in LC as [_ LC]. apply andb_true_iff in LC as [HV LC].
  destruct (has_ext_lookup_int CL c e st sp v R HV) as (z & LV).
  rewrite LV in G |- *.
  destruct (cs_print _ _ _ _ _ _ _ _ CS) as (tv & c2 & TV & NX & ->).
  destruct (sim_print im CL c e st sp nl v z tv R LV TV) as (s' & E & R' & O & AE).
  apply code_at_app in CA as [CA1 CA2]. apply labels_at_nh_app in LA as [_ LA2].
  eapply exec_to_finishes; [apply (exec_straight_exec_to im _ pc st s' CA1 E)|].
  exact (IH c e _ s' _ c2 lc lc' LC NX CA2 LA2 R' (above_eq_outer st s' sp AE OK) O G).
Qed.

Lemma runs_ifc fuel so a b thenc elsec : runs fuel thenc -> runs fuel elsec -> runs (S fuel) (IfC so a b thenc elsec).
Proof.
  intros IHt IHe c e ot st pc code lc lc' LC CS CA LA R OK <- G. cbn [exec_linear] in G |- *.
  cbn [lin_check] in LC. apply andb_true_iff in LC as [_ LC].
  apply andb_true_iff in LC as [LC LCe]. apply andb_true_iff in LC as [LCo LCt]. apply andb_true_iff in LCo as [HA HB].
  destruct (has_ext_lookup_int CL c e st sp a R HA) as (x & LA1).
  assert (LB1 : exists y, match b with Some b0 => lookup_int e b0 | None => Some 0 end = Some y).
  { destruct b as [b|]; [|eauto]. exact (has_ext_lookup_int CL c e st sp b R HB). }
  destruct LB1 as (y & LB1). rewrite LA1, LB1 in G |- *.
  destruct (sim_ifc im CL c e st sp so a b x y (ptypes p) thenc elsec lc code lc' pc R LA1 LB1 CS CA LA)
    as (c1 & c2 & lc2 & c3 & s' & -> & EL & TH & X & R' & FE).
  eapply exec_to_finishes; [exact X|].
  apply code_at_app in CA as [_ CA]. apply code_at_app in CA as [CA2 CA]. apply code_at_app in CA as [_ CA3].
  apply labels_at_nh_app in LA as [_ LA]. apply labels_at_nh_app in LA as [LA2 LA]. apply labels_at_nh_app in LA as [_ LA3].
  rewrite <- !padd_add in CA3, LA3. cbn [List.length] in CA3, LA3. rewrite Nat.add_assoc in CA3, LA3.
  destruct (eval_cmp so x y).
  - exact (runs_next fuel thenc c e st s' _ c3 lc2 lc' IHt LCt TH CA3 LA3 R' FE OK G).
  - exact (runs_next fuel elsec c e st s' _ c2 _ lc2 IHe LCe EL CA2 LA2 R' FE OK G).
Qed.

Lemma runs_exit fuel v : runs (S fuel) (Exit v).
Proof.
  intros c e ot st pc code lc lc' LC CS CA LA R OK <- G. cbn [exec_linear] in G |- *.
  cbn [lin_check] in LC. apply andb_true_iff in LC as [_ HV].
  destruct (has_ext_lookup_int CL c e st sp v R HV) as (z & LV).
  rewrite LV in G |- *.
  destruct (cs_exit _ _ _ _ _ _ CS) as (tv & TV & -> & _).
  destruct (sim_exit_mov im CL c e st sp v z tv R LV TV) as (s' & E & RAX & F' & FE).
  apply code_at_app in CA as [CA1 CA2]. apply code_at_cons in CA2 as [CJ _].
  destruct CLEAN as (pcc & FL & CAc).
  eapply exec_to_finishes; [apply (exec_straight_exec_to im _ pc st s' CA1 E)|].
  eapply exec_to_finishes.
  { eapply exec_jump; [exact CJ|cbn [step]; unfold goto_label; rewrite FL; reflexivity|apply exec_refl]. }
  rewrite <- (proj1 (proj2 FE)).
  exact (epilogue_ok im pcc s' sp z CAc F' (frame_eq_outer st s' sp (proj2 F') FE OK) RAX).
Qed.

Hypothesis INT : forall d, In d (pdefs p) -> def_int d = true.

Lemma runs_int : forall fuel s, stmt_int s = true -> runs fuel s.
Proof.
  induction fuel as [|fuel IH]; intros s SI; [apply runs_0|].
  destruct s; cbn [stmt_int] in SI; try discriminate.
  - apply andb_true_iff in SI as [_ SI]. auto using runs_substitute.
  - apply runs_call. intros d IN. apply IH. specialize (INT d IN). unfold def_int in INT. now apply andb_true_iff in INT.
  - auto using runs_literal.
  - auto using runs_op.
  - auto using runs_print.
  - apply andb_true_iff in SI as [SI1 SI2]. auto using runs_ifc.
  - apply runs_exit.
Qed.

Lemma sim_exec : forall fuel s c e ot st pc code lc lc',
  stmt_int s = true -> ctx_int c = true -> lin_check (sigs_of p) c s = true ->
  xcs (ptypes p) s c lc = Ok (code, lc') -> code_at im pc code -> labels_at_nh im pc code ->
  rel c e st sp -> outer_ok st sp -> out st = ot ->
  not_oof (exec_linear fuel p e s ot) -> finishes im pc st (exec_linear fuel p e s ot).
Proof. intros fuel s c e ot st pc code lc lc' SI _. now apply runs_int. Qed.
End Main.
