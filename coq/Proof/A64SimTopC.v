(* C07, forward simulation of the AArch64 code generator: the program-level theorem for the closure fragment (integers and closures
   without captured variables).  Mirrors Proof/X86SimTopC.v. *)
From Coq Require Import List ZArith NArith String Bool Lia FMapPositive.
From SCC Require Import Lang.AxSyn Sem.AxSem Model.Backend Model.A64 Sem.A64Sem Model.LinCheck Proof.A64SimRel
     Proof.A64SimAddr Proof.A64SimClo Proof.A64SimProgC Proof.A64SimTop.
From SCC Require Import Sem.A64Wf.
Import ListNotations.
Open Scope Z_scope.
Open Scope list_scope.

Theorem a64_codegen_simulates_cf p lc cs n lc' args fuel o :
  cf_frag p = true -> entry_int p = true -> plain_names p = true -> plain_types p = true -> lits_i64 p = true ->
  lin_check_prog p = true ->
  a64_compile p lc = Ok (cs, n, lc') -> asm_wf cs = None -> code_small cs = true ->
  List.length args = n -> args_i64 args = true ->
  run_linear fuel p args = o -> snd o <> OOutOfFuel ->
  exists outer inner, fst (run_a64 outer inner cs args) = o.
Proof.
  intros CF EI PL PLTY LITS LIN XC WF SM NARGS AI <- G.
  apply (a64_program_run p lc cs n lc' args fuel PL XC WF NARGS).
  intros d0 e0 s1 pc c0 lc0 HD EE LE7 _ DEFS CLEAN F1 O1 FR1 RG1 C0 CA LA.
  unfold run_linear in G. unfold entry_int in EI.
  destruct (pdefs p) as [|d rest] eqn:PD; [discriminate|]. inversion HD; subst d. rewrite EE in G.
  assert (D0 : In d0 (pdefs p)) by (rewrite PD; now left).
  pose proof (proj1 (forallb_forall _ _) LIN) as LINd. pose proof (proj1 (forallb_forall _ _) LITS) as LITd.
  assert (CFd : forall d, In d (pdefs p) -> stmt_cf (dbody d) = true).
  { intros d Hd. apply (proj1 (forallb_forall _ _) CF) in Hd. apply andb_true_iff in Hd. tauto. }
  assert (PLT : forall d, In d (ptypes p) -> hash_name (label_of_type_name (show_ident (tname d))) = false).
  { intros d Hd. apply (proj1 (forallb_forall _ _) PLTY) in Hd. destruct (hash_name _); [discriminate|reflexivity]. }
  set (im := mk_image cs) in *.
  assert (R0 : rel (clo_ok im p) (dctx d0) e0 s1 sp0).
  { eapply entry_rel; eauto. eapply lin_nodup. exact (LINd d0 D0). }
  apply (sim_exec_cf im p sp0 (stack s1) (mk_image_ok cs) (mk_image_small cs SM) PLT DEFS CLEAN LINd CFd LITd fuel (dbody d0)
           (dctx d0) e0 [] s1 pc c0 lc lc0 (CFd d0 D0) (LITd d0 D0) (LINd d0 D0) C0 CA LA R0 (fun k _ => eq_refl) O1 G).
Qed.

(* for runs that end with a result (then the argument count is right) *)
Corollary a64_codegen_correct_cf p lc cs n lc' args fuel o :
  cf_frag p = true -> entry_int p = true -> plain_names p = true -> plain_types p = true -> lits_i64 p = true ->
  lin_check_prog p = true -> asm_wf cs = None -> code_small cs = true ->
  a64_compile p lc = Ok (cs, n, lc') -> args_i64 args = true ->
  run_linear fuel p args = o -> defined o = true ->
  exists outer inner, fst (run_a64 outer inner cs args) = o.
Proof.
  intros CF EI PL PLT LI LIN WF SM XC AI RUN D.
  assert (G : good o) by (left; unfold defined in D; destruct (snd o); try discriminate; eauto).
  eapply a64_codegen_simulates_cf; eauto; [eapply a64_compile_arity; eauto|apply good_not_oof; exact G].
Qed.
