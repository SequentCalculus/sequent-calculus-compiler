(* Groundwork for the refinement of `x_store` / `x_load` (Proof/X86MemStore.v, Proof/X86MemLoad.v):
     - the temporaries of environment positions (`tpos`), as locations;
     - block arithmetic, words that are not block headers (`nonblk_same`);
     - single instructions with an offset, code placement of concatenations;
     - congruence of the abstract operations for the block-wise equality `st_eqB`. *)
From Coq Require Import List ZArith NArith String Bool Lia FMapPositive.
From SCC Require Import Base.Sexp Lang.AxSyn Sem.AxSem Model.Backend Model.X86 Sem.X86Sem Generated.Constants
  Proof.X86State Proof.X86Sel Proof.X86Mem Proof.X86StackFrame.
From SCC Require Model.Heap.
Import ListNotations.
Open Scope Z_scope.

Definition tpos (k : N) : xtemp := (if k + 4 <? 16 then XR (k + 4) else XS (k - 11))%N.
Definition MAXPOS : N := 267.

Lemma tfp_tpos k t : temporary_from_position k = Ok t -> t = tpos k /\ (k < MAXPOS)%N.
Proof.
  unfold temporary_from_position, tpos, MAXPOS.
  change RESERVED with 4%N. change REGISTER_NUM with 16%N. change RESERVED_SPILLS with 1%N. change SPILL_NUM with 256%N.
  destruct (N.ltb_spec (k + 4) 16); [intros H0; inversion H0; split; [reflexivity|lia]|].
  destruct (N.ltb_spec (k + 4 - 16 + 1) 256); [|discriminate].
  intros H1. inversion H1. split; [f_equal; lia|lia].
Qed.
Lemma tpos_tfp k : (k < MAXPOS)%N -> temporary_from_position k = Ok (tpos k).
Proof.
  unfold temporary_from_position, tpos, MAXPOS.
  change RESERVED with 4%N. change REGISTER_NUM with 16%N. change RESERVED_SPILLS with 1%N. change SPILL_NUM with 256%N.
  intros Hk. destruct (N.ltb_spec (k + 4) 16); [reflexivity|].
  destruct (N.ltb_spec (k + 4 - 16 + 1) 256); [|lia]. do 2 f_equal. lia.
Qed.
Lemma x_fresh_tpos n c t :
  x_fresh n c = Ok t -> t = tpos (2 * N.of_nat (List.length c) + tnum_n n) /\ (2 * N.of_nat (List.length c) + tnum_n n < MAXPOS)%N.
Proof. apply tfp_tpos. Qed.
Lemma tpos_loc_ok k : (k < MAXPOS)%N -> loc_ok (tpos k).
Proof.
  unfold tpos, MAXPOS. intros Hk. destruct (N.ltb_spec (k + 4) 16); cbn [loc_ok]; [lia|].
  unfold slot_ok. change SPILL_NUM with 256%N. lia.
Qed.
Lemma tpos_inj k k' : tpos k = tpos k' -> k = k'.
Proof.
  unfold tpos. destruct (N.ltb_spec (k + 4) 16), (N.ltb_spec (k' + 4) 16); intros E; inversion E; lia.
Qed.
Lemma tpos_neq k k' : k <> k' -> tpos k <> tpos k'.
Proof. intros H E. apply H. now apply tpos_inj. Qed.
Lemma tpos_reg k r : tpos k = XR r -> r = (k + 4)%N /\ (k < 12)%N.
Proof. unfold tpos. destruct (N.ltb_spec (k + 4) 16); intros E; inversion E. split; [reflexivity|lia]. Qed.
Lemma tpos_slot k q : tpos k = XS q -> q = (k - 11)%N /\ (12 <= k)%N.
Proof. unfold tpos. destruct (N.ltb_spec (k + 4) 16); intros E; inversion E. split; [reflexivity|lia]. Qed.
(* a temporary of a position is none of the reserved locations *)
Lemma tpos_not_reserved k : tpos k <> XR 0%N /\ tpos k <> XR TEMP /\ tpos k <> XR HEAP /\ tpos k <> XR FREE /\ tpos k <> XS SPILL_TEMP.
Proof.
  unfold tpos. change TEMP with 1%N. change HEAP with 2%N. change FREE with 3%N. change SPILL_TEMP with 0%N.
  destruct (N.ltb_spec (k + 4) 16); repeat split; intros E; inversion E; lia.
Qed.
Lemma tpos_not_temp k : tpos k <> XR TEMP. Proof. apply tpos_not_reserved. Qed.

Lemma hword_sset s sp q v a : hword (sset s sp q v) a = hword s a. Proof. reflexivity. Qed.
Lemma hword_lset s sp t v a : hword (lset s sp t v) a = hword s a. Proof. destruct t; reflexivity. Qed.

Definition nonblk_same (s s' : xstate) : Prop := forall a, ~ is_blk a -> hword s' a = hword s a.
Lemma nonblk_same_refl s : nonblk_same s s. Proof. intros a _. reflexivity. Qed.
Lemma nonblk_same_trans s1 s2 s3 : nonblk_same s1 s2 -> nonblk_same s2 s3 -> nonblk_same s1 s3.
Proof. intros A B a Ha. rewrite B, A; auto. Qed.
Lemma nonblk_same_hset s p z : is_blk p -> nonblk_same s (hset s p z).
Proof. intros Hb a Ha. now apply hword_hset_nonblk. Qed.

Lemma is_blk_pos p : is_blk p -> 0 < p.
Proof. intros (k & Hk & -> & _). unfold HEAP_BASE. lia. Qed.
Lemma is_blk_apart p q : is_blk p -> is_blk q -> p <> q -> p + 64 <= q \/ q + 64 <= p.
Proof. intros (k & Hk & -> & _) (j & Hj & -> & _) H. lia. Qed.
Lemma not_blk_off p i : is_blk p -> 0 < i < 64 -> ~ is_blk (p + i).
Proof. intros (k & Hk & -> & _) Hi (j & Hj & E & _). lia. Qed.
Lemma is_blk_word p i : is_blk p -> 0 <= i < 64 -> i mod 8 = 0 -> heap_addr (p + i).
Proof.
  intros (k & Hk & -> & Hhi) Hi Hm. unfold heap_addr, HEAP_BASE, HEAP_SIZE in *.
  pose proof (Z.div_mod i 8 ltac:(lia)) as Hd. rewrite Hm in Hd. repeat split; try lia.
  replace (268435456 + 64 * k + i) with (i + (33554432 + 8 * k) * 8) by lia. rewrite Z.mod_add by lia. exact Hm.
Qed.
Lemma field_offset_val n j : field_offset n j = 16 + 16 * Z.of_N j + 8 * Z.of_N (tnum_n n).
Proof. unfold field_offset, address. change X86C.address1 with 8. lia. Qed.
Lemma field_addr p n j : is_blk p -> (j < 3)%N -> heap_addr (p + field_offset n j).
Proof.
  intros Hb Hj. rewrite field_offset_val. apply is_blk_word; auto.
  - destruct n; cbn [tnum_n]; lia.
  - destruct n; cbn [tnum_n]; [replace (16 + 16 * Z.of_N j + 8 * Z.of_N 0) with (0 + (2 + 2 * Z.of_N j) * 8) by lia
                              |replace (16 + 16 * Z.of_N j + 8 * Z.of_N 1) with (0 + (3 + 2 * Z.of_N j) * 8) by lia];
      rewrite Z.mod_add by lia; reflexivity.
Qed.
Lemma field_not_blk p n j : is_blk p -> (j < 3)%N -> ~ is_blk (p + field_offset n j).
Proof. intros Hb Hj. rewrite field_offset_val. apply not_blk_off; auto. destruct n; cbn [tnum_n]; lia. Qed.

Lemma same_but_temp_refl s : same_but_temp s s. Proof. repeat split; reflexivity. Qed.
Lemma same_but_temp_trans s1 s2 s3 : same_but_temp s1 s2 -> same_but_temp s2 s3 -> same_but_temp s1 s3.
Proof.
  intros (A1 & A2 & A3) (B1 & B2 & B3). split; [|split; congruence]. intros r Hr. rewrite B1, A1; auto.
Qed.
Lemma same_but_temp_lget s s' sp t : same_but_temp s s' -> t <> XR TEMP -> lget s' sp t = lget s sp t.
Proof. intros (A & B & _) Ht. destruct t as [r|q]; cbn [lget]; [apply A; congruence|unfold sget; now rewrite B]. Qed.
Lemma same_but_temp_frame s s' sp : same_but_temp s s' -> frame_ok s sp -> frame_ok s' sp.
Proof. intros (A & _) (B & C). split; [rewrite A by discriminate; exact B|exact C]. Qed.

Section Steps.
Variable im : image.
Lemma step_MOVS_heap_off s a b i p v :
  rget s b = Some p -> heap_addr (p + i) -> rget s a = Some v -> step im (MOVS a b i) s = Next (hset s (p + i) v).
Proof. intros R H A. cbn [step]. rewrite (ea_heap s b i p) by auto. unfold withm. now rewrite A, mstore_heap. Qed.
Lemma step_MOVIM_heap_off s a i p j :
  rget s a = Some p -> heap_addr (p + i) -> fits32 j = true -> step im (MOVIM a i j) s = Next (hset s (p + i) j).
Proof. intros R H J. cbn [step]. rewrite J, (ea_heap s a i p) by auto. unfold withm. now rewrite mstore_heap. Qed.
End Steps.

Lemma share_st_eqB a b p n : st_eqB a b -> (p = 0 \/ is_blk p) -> st_eqB (Heap.share p n a) (Heap.share p n b).
Proof.
  intros (A1 & A2 & A3 & A4) Hp. unfold Heap.share. destruct (Z.eqb_spec p 0); [repeat split; auto|].
  destruct Hp as [|Hb]; [contradiction|]. split; [|split; [|split]]; cbn; auto.
  intros x Hx. unfold Heap.set_hdr, Heap.upd. destruct (x =? p); rewrite ?(A4 p Hb), ?(A4 x Hx); auto.
Qed.
Lemma dec_st_eqB a b p : st_eqB a b -> is_blk p -> st_eqB (Heap.dec p a) (Heap.dec p b).
Proof.
  intros (A1 & A2 & A3 & A4) Hb. unfold Heap.dec. split; [|split; [|split]]; cbn; auto.
  intros x Hx. unfold Heap.set_hdr, Heap.upd. destruct (x =? p); rewrite ?(A4 p Hb), ?(A4 x Hx); auto.
Qed.
Lemma release_st_eqB a b p : st_eqB a b -> is_blk p -> st_eqB (Heap.release p a) (Heap.release p b).
Proof.
  intros (A1 & A2 & A3 & A4) Hb. unfold Heap.release. split; [|split; [|split]]; cbn; auto.
  intros x Hx. unfold Heap.set_hdr, Heap.upd. destruct (x =? p); rewrite ?A1, ?(A4 p Hb), ?(A4 x Hx); auto.
Qed.
Lemma erase_list_st_eqB l : forall a b,
  st_eqB a b -> Forall (fun c => c = 0 \/ is_blk c) l ->
  st_eqB (fold_left (fun s c => Heap.erase c s) l a) (fold_left (fun s c => Heap.erase c s) l b).
Proof.
  induction l as [|c l IH]; intros a b E Hl; cbn [fold_left]; auto.
  inversion Hl; subst. apply IH; auto. now apply erase_st_eqB.
Qed.
Lemma acquire_st_eqB a b :
  st_eqB a b -> is_blk (Heap.heap a) ->
  (Heap.hdr (Heap.m a (Heap.heap a)) = 0 -> is_blk (Heap.free a)) ->
  (Heap.hdr (Heap.m a (Heap.heap a)) = 0 -> Heap.hdr (Heap.m a (Heap.free a)) <> 0 ->
     Forall (fun c => c = 0 \/ is_blk c) (Heap.ps (Heap.m a (Heap.free a)))) ->
  fst (Heap.acquire a) = fst (Heap.acquire b) /\ st_eqB (snd (Heap.acquire a)) (snd (Heap.acquire b)).
Proof.
  intros E Hh Hf Hk. pose proof E as (A1 & A2 & A3 & A4). unfold Heap.acquire.
  rewrite <- A1, <- A2, <- (A4 _ Hh).
  destruct (Z.eqb_spec (Heap.hdr (Heap.m a (Heap.heap a))) 0) as [H0|Hn0]; cbn [negb].
  2:{ cbn [fst snd]. split; [reflexivity|]. split; [|split; [|split]]; cbn; auto.
      intros x Hx. unfold Heap.set_hdr, Heap.upd. destruct (x =? Heap.heap a); rewrite ?(A4 _ Hh), ?(A4 x Hx); auto. }
  specialize (Hf H0). rewrite <- (A4 _ Hf).
  destruct (Z.eqb_spec (Heap.hdr (Heap.m a (Heap.free a))) 0) as [F0|Fn0]; cbn [fst snd].
  - split; [reflexivity|]. split; [|split; [|split]]; cbn; auto.
  - split; [reflexivity|]. apply erase_list_st_eqB; [|now apply Hk].
    split; [|split; [|split]]; cbn; auto.
    intros x Hx. unfold Heap.set_hdr, Heap.upd. destruct (x =? Heap.free a); rewrite ?(A4 _ Hf), ?(A4 x Hx); auto.
Qed.
