(* Facts about the append of strings that the standard library lacks. *)
From Coq Require Import String.
Local Open Scope string_scope.

Lemma sapp_assoc (a b c : string) : (a ++ b) ++ c = a ++ (b ++ c).
Proof. induction a; cbn; [reflexivity|]. now rewrite IHa. Qed.
Lemma sapp_nil_r (a : string) : a ++ "" = a.
Proof. induction a; cbn; [reflexivity|]. now rewrite IHa. Qed.
Lemma slen_app (a b : string) : String.length (a ++ b) = (String.length a + String.length b)%nat.
Proof. induction a; cbn; [reflexivity|]. now rewrite IHa. Qed.
Lemma sapp_inj_l (a b c : string) : a ++ b = a ++ c -> b = c.
Proof. induction a; cbn; intros H; [exact H|]. inversion H. auto. Qed.
