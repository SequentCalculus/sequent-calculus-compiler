(* Proof/AxToLin.v (property C12): the checker for non-linear AxCut that is run on the output of
   shrinking (Sem/AxCheck.v: check_prog / wt_ax) against the hypothesis of the linearization theorem
   (Model/LinCheck.v: prog_ok).

     prog_ok p  =  for every definition:  ax_check (typing, non-linear discipline)
                                          /\ binders GLOBALLY pairwise distinct (and distinct from the parameters)
                                          /\ every parameter/binder id <= max_id
     wt_ax p    =  typing (a superset of ax_check's demands: also declared parameter types, distinct
                   definition/type/xtor names, clause order diagnosed separately, lifted definitions closed)
                   /\ binders fresh along every PATH (two branches may bind the same id)
                   and it ACCEPTS explicit substitutions and annotated closure environments, which
                   ax_check rejects / ignores.

   Theorem wt_ax_prog_ok:  wt_ax p, no Substitute and no annotated environment (pre_linear: what
   shrinking emits), globally distinct bounded binders (binders_ok)  ==>  prog_ok p.
   The binder condition is NOT implied by wt_ax: wt_ax_not_prog_ok (two branches binding the same id). *)
From Coq Require Import List ZArith NArith String Bool Lia.
From SCC Require Import Base.Sexp Lang.AxSyn Model.Linearize.
From SCC Require Sem.AxCheck.
From SCC Require Import Model.LinCheck Model.WtDefs Proof.LinBasics.
Import ListNotations.
Open Scope list_scope.

Lemma seq_none {X} (a b : option X) : match a with None => b | Some e => Some e end = None -> a = None /\ b = None.
Proof. destruct a; [discriminate|auto]. Qed.
Lemma ensure_none b m : AxCheck.ensure b m = None -> b = true.
Proof. destruct b; [reflexivity|discriminate]. Qed.
Ltac seqs H :=
  repeat match type of H with
         | match ?a with None => _ | Some e => Some e end = None =>
             let H1 := fresh "E" in apply seq_none in H; destruct H as [H1 H];
             try (apply ensure_none in H1)
         end.

Lemma lookup_same G x : AxCheck.lookup_b G x = lookup_b G x.
Proof.
  unfold lookup_b. induction G as [|b r IH]; cbn [AxCheck.lookup_b find]; [reflexivity|].
  destruct (N.eqb (idn (bvar b)) x); [reflexivity|exact IH].
Qed.
Lemma bound_has G x c t : AxCheck.bound G x c t = None -> has G x c t = true.
Proof.
  unfold AxCheck.bound, has. rewrite lookup_same. destruct (lookup_b G (idn x)) as [b|]; [|discriminate].
  apply ensure_none.
Qed.
Lemma args_ok_sig what G : forall args sig,
  AxCheck.args_ok what G args sig = None -> sig_match args sig = true /\ forallb (has_b G) args = true.
Proof.
  induction args as [|a ar IH]; intros [|s sr] H; cbn [AxCheck.args_ok] in H; try discriminate; [split; reflexivity|].
  seqs H. destruct (IH _ H) as [I1 I2]. cbn [sig_match forallb]. unfold kt_eqb, AxCheck.same_sig in *.
  rewrite E, I1, I2. unfold has_b. rewrite (bound_has _ _ _ _ E0). split; reflexivity.
Qed.
Lemma params_ok_sig what : forall ps sig, AxCheck.params_ok what ps sig = None -> sig_match ps sig = true.
Proof.
  induction ps as [|a ar IH]; intros [|s sr] H; cbn [AxCheck.params_ok] in H; try discriminate; [reflexivity|].
  seqs H. cbn [sig_match]. unfold kt_eqb, AxCheck.same_sig in *. rewrite E, (IH _ H). reflexivity.
Qed.

Section S.
Variable ts : list tydecl.
Variable ds : list def.
Let S : sigs := mks (map (fun d => (dname d, dctx d)) ds) ts.

Lemma type_of_xtors what t d :
  AxCheck.type_of ts what t = (None, Some d) -> type_xtors S t = Some (txtors d).
Proof.
  unfold AxCheck.type_of, type_xtors, AxCheck.find_type. destruct t as [|n]; [discriminate|]. cbn [sg_types S].
  destruct (find (fun t => ident_eqb (tname t) n) ts) as [d'|]; [|discriminate].
  intros H; inversion H; reflexivity.
Qed.
Lemma find_xtor_lookup what t d tag sg :
  AxCheck.type_of ts what t = (None, Some d) -> AxCheck.find_xtor d tag = Some sg ->
  lookup_xtor S t tag = Some (xargs sg).
Proof.
  intros T F. unfold lookup_xtor. rewrite (type_of_xtors _ _ _ T). unfold AxCheck.find_xtor in F. rewrite F. reflexivity.
Qed.
Lemma find_label l d :
  find (fun d => ident_eqb (dname d) l) ds = Some d -> lookup_label S l = Some (dctx d).
Proof.
  unfold lookup_label. cbn [sg_labels S]. induction ds as [|d0 r IH]; cbn [find map]; [discriminate|].
  cbn [fst]. destruct (ident_eqb (dname d0) l); [intros H; inversion H; reflexivity|exact IH].
Qed.

Definition IHa (s : stmt) : Prop :=
  forall G, AxCheck.check_stmt ts ds G s = None -> pre_linear s = true -> ax_check S G s = true.

Theorem check_stmt_ax_check : forall s, IHa s.
Proof.
  induction s using stmt_ind2; intros G HC PL.
  - (* Substitute *) discriminate.
  - (* Call *)
    cbn [AxCheck.check_stmt] in HC. destruct (find _ ds) as [d|] eqn:F; [|discriminate].
    cbn [ax_check]. rewrite (find_label _ _ F). destruct (args_ok_sig _ _ _ _ HC) as [A1 A2]. rewrite A1, A2. reflexivity.
  - (* Let *)
    cbn [AxCheck.check_stmt] in HC. destruct (AxCheck.type_of ts _ t) as [[e|] [d|]] eqn:T; try discriminate.
    destruct (AxCheck.find_xtor d tag) as [sg|] eqn:F; [|discriminate]. seqs HC.
    destruct (args_ok_sig _ _ _ _ E) as [A1 A2].
    cbn [ax_check]. unfold args_ok. rewrite (find_xtor_lookup _ _ _ _ _ T F), A1, A2. cbn [andb].
    apply IHs; [exact HC|exact PL].
  - (* Switch *)
    cbn [AxCheck.check_stmt] in HC. destruct (AxCheck.type_of ts _ t) as [[e|] [d|]] eqn:T; try discriminate. seqs HC.
    destruct (negb _ && _); [discriminate|].
    cbn [pre_linear] in PL. cbn [ax_check]. rewrite (bound_has _ _ _ _ E). unfold cls_ok. rewrite (type_of_xtors _ _ _ T).
    cbn [andb]. apply andb_true_iff.
    revert HC PL. generalize (txtors d). generalize ("switch " ++ show_ident v)%string.
    induction H as [|[[x c] b] cr Hb Hr IH]; intros what xs HC PL; destruct xs as [|sg xr]; try discriminate; [split; reflexivity|].
    seqs HC. apply andb_true_iff in PL as [P1 P2].
    destruct (IH what xr HC P2) as [I1 I2].
    cbn [cls_sig]. unfold cl_xtor, cl_ctx. cbn [fst snd].
    rewrite E0, (params_ok_sig _ _ _ E1), I1, I2. cbn [andb]. unfold cl_body in Hb. cbn [snd] in Hb. rewrite (Hb _ E3 P1). split; reflexivity.
  - (* Create *)
    cbn [pre_linear] in PL. destruct env as [env|]; [discriminate|]. cbn [andb] in PL. apply andb_true_iff in PL as [PLc PLn].
    cbn [AxCheck.check_stmt] in HC. destruct (AxCheck.type_of ts _ t) as [[e|] [d|]] eqn:T; try discriminate. seqs HC.
    destruct (negb _ && _); [discriminate|].
    cbn [ax_check]. unfold cls_ok. rewrite (type_of_xtors _ _ _ T), (IHs _ HC PLn), andb_true_r.
    apply andb_true_iff.
    revert E PLc. generalize (txtors d). generalize ("create " ++ show_ident v)%string.
    induction H as [|[[x c] b] cr Hb Hr IH]; intros what xs HC' PL; destruct xs as [|sg xr]; try discriminate; [split; reflexivity|].
    seqs HC'. apply andb_true_iff in PL as [P1 P2].
    destruct (IH what xr HC' P2) as [I1 I2].
    cbn [cls_sig]. unfold cl_xtor, cl_ctx. cbn [fst snd].
    rewrite E, (params_ok_sig _ _ _ E1), I1, I2. cbn [andb]. unfold cl_body in Hb. cbn [snd] in Hb. rewrite (Hb _ E3 P1). split; reflexivity.
  - (* Invoke *)
    cbn [AxCheck.check_stmt] in HC. destruct (AxCheck.type_of ts _ t) as [[e|] [d|]] eqn:T; try discriminate.
    destruct (AxCheck.find_xtor d tag) as [sg|] eqn:F; [|discriminate]. seqs HC.
    destruct (args_ok_sig _ _ _ _ HC) as [A1 A2].
    cbn [ax_check]. unfold args_ok. rewrite (find_xtor_lookup _ _ _ _ _ T F), A1, A2, (bound_has _ _ _ _ E). reflexivity.
  - (* Literal *)
    cbn [AxCheck.check_stmt] in HC. seqs HC. cbn [ax_check]. apply IHs; [exact HC|exact PL].
  - (* Op *)
    cbn [AxCheck.check_stmt] in HC. seqs HC. cbn [ax_check]. unfold has_ext.
    rewrite (bound_has _ _ _ _ E), (bound_has _ _ _ _ E0). cbn [andb]. apply IHs; [exact HC|exact PL].
  - (* Print *)
    cbn [AxCheck.check_stmt] in HC. seqs HC. cbn [ax_check]. unfold has_ext.
    rewrite (bound_has _ _ _ _ E). cbn [andb]. apply IHs; [exact HC|exact PL].
  - (* IfC *)
    cbn [AxCheck.check_stmt] in HC. seqs HC. cbn [pre_linear] in PL. apply andb_true_iff in PL as [P1 P2].
    cbn [ax_check]. unfold has_ext. rewrite (bound_has _ _ _ _ E), (IHs1 _ E1 P1), (IHs2 _ HC P2).
    destruct b as [b|]; [rewrite (bound_has _ _ _ _ E0)|]; reflexivity.
  - (* Exit *)
    cbn [AxCheck.check_stmt] in HC. cbn [ax_check]. unfold has_ext. apply bound_has. exact HC.
Qed.
End S.

Lemma check_def_stmt ts ds d : AxCheck.check_def ts ds d = None -> AxCheck.check_stmt ts ds (dctx d) (dbody d) = None.
Proof.
  unfold AxCheck.check_def. intros H.
  destruct (AxCheck.is_lifted_name (dname d)).
  - destruct (negb _); [discriminate|]. destruct (AxCheck.minus_n _ _); [|discriminate]. seqs H. exact H.
  - seqs H. exact H.
Qed.

(* the output-of-shrink checker implies the hypothesis of the linearization theorem, given what it
   does not look at *)
Theorem wt_ax_prog_ok : forall p,
  AxCheck.check_prog p = None -> pre_linear_prog p = true -> binders_ok p = true -> prog_ok p = true.
Proof.
  intros p HC PL BO. unfold AxCheck.check_prog in HC. seqs HC.
  unfold prog_ok. apply forallb_forall. intros d Hd.
  unfold pre_linear_prog in PL. unfold binders_ok in BO.
  pose proof (proj1 (forallb_forall _ _) PL d Hd) as PLd. pose proof (proj1 (forallb_forall _ _) BO d Hd) as BOd.
  cbn beta in PLd, BOd. apply andb_true_iff in BOd as [B1 B2].
  unfold def_ok. rewrite B1, B2, !andb_true_r.
  assert (CD : AxCheck.check_def (ptypes p) (pdefs p) d = None).
  { clear -HC Hd. revert HC. generalize (pdefs p) at 1 3. intros all. induction (pdefs p) as [|d0 r IH]; [contradiction|].
    intros HC. seqs HC. destruct Hd as [->|Hd]; [exact E|apply IH; assumption]. }
  exact (check_stmt_ax_check (ptypes p) (pdefs p) (dbody d) (dctx d) (check_def_stmt _ _ _ CD) PLd).
Qed.

(* the binder condition is not implied: both branches of a conditional bind id 2 - fresh along
   each path (wt_ax accepts), not globally distinct (prog_ok rejects; linearization would still be
   correct here, but its theorem is stated for globally distinct binders) *)
Definition two_branches : prog :=
  mkp [mkd ("main", 0%N) []
         (Literal 1 ("x", 1%N)
            (IfC Eq ("x", 1%N) None
               (Literal 2 ("y", 2%N) (Exit ("y", 2%N)))
               (Literal 3 ("y", 2%N) (Exit ("y", 2%N)))))] [] 2.
Lemma wt_ax_not_prog_ok :
  AxCheck.check_prog two_branches = None /\ pre_linear_prog two_branches = true /\ prog_ok two_branches = false.
Proof. split; [vm_compute; reflexivity|]. split; vm_compute; reflexivity. Qed.
Print Assumptions wt_ax_prog_ok.
