(* C03, semantic preservation: non-vacuity of the hypotheses of the preservation theorems
   (Proof/FocusPres.v), by computation.

   ex_order : def main() { exit ((mu a. print 1; <10|a>) + ((mu b. print 2; <20|b>) * (mu c. print 3; <3|c>))) }
              nested effectful operands; the order 1 2 3 of the prints is observable.
   ex_data  : def main() { <Pair((mu a. print 1; <5|a>), (mu b. print 2; <6|b>)) | case { Pair(x,y) => f(y - (mu c. print 3; <x|c>)) }> }
              def f(z) { print z; exit z }     constructor arguments, a call argument, a case.
   ex_lists : the fun2core output of examples/Lists/Lists.sc (closures, data, calls, mu-arguments).
   ex_mixed : by-name and by-value mu-abstractions in one program: outside both syntactic guards, but typed. *)
From Coq Require Import List ZArith NArith String Bool Lia.
From SCC Require Import Base.Sexp Lang.CoreSyn Sem.AxSem Sem.CoreSem Model.Backend Model.Uniquify Model.Focus
     Model.FocusCheck Proof.FocusExamples Proof.FocusSim Proof.FocusRun Proof.FocusFrag Proof.FocusPres Proof.UqAeq.
From SCC Require Import Model.FocusGuard.
Import ListNotations.
Open Scope string_scope.
Open Scope Z_scope.

Definition mu_print (a : string) (n v : Z) : cterm :=
  CMu CPrd (a, 0%N) (CPrint false (CLit n) (CCut (CLit v) CI64 (CXVar CCns (a, 0%N) CI64))) CI64.

Definition ex_order : cprog :=
  mkcp [mkcd ("main", 0%N) []
          (CExit (COp (mu_print "a" 1 10) CSum (COp (mu_print "b" 2 20) CProd (mu_print "c" 3 3))) CI64)]
       [] [] 0%N.

Definition checks (p : cprog) (bn kr : bool) (fuel fuel' : nat) (args : list Z) (expect : obs) : bool :=
  pre_check p && focus_wf p && cs_prog p && sg_prog bn kr p && tc_prog p && tc_entry p && static_ok p && clash_free_prog fuel p args &&
  match uniquify_prog p, focus_prog p with
  | Ok p1, Ok q =>
      sg_prog bn kr p1 && clash_free_prog fuel p1 args &&
      obs_eqb (run_core fuel p1 args) expect && obs_eqb (run_core fuel p args) expect &&
      obs_eqb (run_fs fuel' q args) expect
  | _, _ => false
  end.

Example ex_order_ok : checks ex_order false true 100 200 [] ([(false, 1); (false, 2); (false, 3)], OExit 70) = true.
Proof. vm_compute. reflexivity. Qed.

Definition pairty : cty := CDecl ("Pair", 0%N).
Definition ex_data : cprog :=
  mkcp [mkcd ("main", 0%N) []
          (CCut (CXtor CPrd ("Pair", 0%N) [CProducer (mu_print "a" 1 5); CProducer (mu_print "b" 2 6)] pairty) pairty
                (CXCase CCns [CClause CCns ("Pair", 0%N) [mkcb ("x", 0%N) CPrd CI64; mkcb ("y", 0%N) CPrd CI64]
                                (CCall ("f", 0%N)
                                   [CProducer (COp (CXVar CPrd ("y", 0%N) CI64) CSub
                                      (CMu CPrd ("c", 0%N) (CPrint false (CLit 3)
                                         (CCut (CXVar CPrd ("x", 0%N) CI64) CI64 (CXVar CCns ("c", 0%N) CI64))) CI64))] CI64)]
                   pairty));
        mkcd ("f", 0%N) [mkcb ("z", 0%N) CPrd CI64]
          (CPrint true (CXVar CPrd ("z", 0%N) CI64) (CExit (CXVar CPrd ("z", 0%N) CI64) CI64))]
       [mkct CData ("Pair", 0%N) [mkcx CData ("Pair", 0%N) [mkcb ("x", 0%N) CPrd CI64; mkcb ("y", 0%N) CPrd CI64]]] [] 0%N.

Example ex_data_ok : checks ex_data false true 100 300 [] ([(false, 1); (false, 2); (false, 3); (true, 1)], OExit 1) = true.
Proof. vm_compute. reflexivity. Qed.

(* by-name AND by-value mu-abstractions in one program: outside both syntactic guards, but typed
     codata Fun { ap(x : i64, a : cns i64) }
     def main() { exit (mu a:i64. < mu f:Fun. <cocase { ap(x, b) => <x + 1 | b> } | f>
                                  | mu~ g:Fun. < g | ap((mu c:i64. print 1; <41 | c>), a) > >) } *)
Definition funty : cty := CDecl ("Fun", 0%N).
Definition ex_mixed : cprog :=
  mkcp [mkcd ("main", 0%N) []
          (CExit (CMu CPrd ("a", 0%N)
             (CCut (CMu CPrd ("f", 0%N)
                      (CCut (CXCase CPrd [CClause CPrd ("ap", 0%N) [mkcb ("x", 0%N) CPrd CI64; mkcb ("b", 0%N) CCns CI64]
                                            (CCut (COp (CXVar CPrd ("x", 0%N) CI64) CSum (CLit 1)) CI64 (CXVar CCns ("b", 0%N) CI64))] funty)
                            funty (CXVar CCns ("f", 0%N) funty)) funty)
                   funty
                   (CMu CCns ("g", 0%N)
                      (CCut (CXVar CPrd ("g", 0%N) funty) funty
                            (CXtor CCns ("ap", 0%N) [CProducer (mu_print "c" 1 41); CConsumer (CXVar CCns ("a", 0%N) CI64)] funty)) funty))
             CI64) CI64)]
       [] [mkct CCodata ("Fun", 0%N) [mkcx CCodata ("ap", 0%N) [mkcb ("x", 0%N) CPrd CI64; mkcb ("a", 0%N) CCns CI64]]] 0%N.
Example ex_mixed_ok :
  negb (sg_prog false true ex_mixed) && negb (sg_prog true false ex_mixed) &&
  pre_check ex_mixed && focus_wf ex_mixed && cs_prog ex_mixed && tc_prog ex_mixed && tc_entry ex_mixed && static_ok ex_mixed &&
  match focus_prog ex_mixed with
  | Ok q => obs_eqb (run_core 100 ex_mixed []) ([(false, 1)], OExit 42) && obs_eqb (run_fs 300 q []) ([(false, 1)], OExit 42)
  | Err _ => false
  end = true.
Proof. vm_compute. reflexivity. Qed.

(* a real translation output inside the guard "no by-name value" *)
Definition checks_str (s : string) (fuel fuel' : nat) : bool :=
  match parse_prog s with
  | Some p =>
      pre_check p && focus_wf p && cs_prog p && sg_prog false true p && tc_prog p && tc_entry p &&
      match uniquify_prog p, focus_prog p with
      | Ok p1, Ok q =>
          sg_prog false true p1 && obs_eqb (run_core fuel p []) (run_fs fuel' q []) && obs_eqb (run_core fuel p1 []) (run_fs fuel' q []) &&
          match snd (run_core fuel p1 []) with OExit _ => true | _ => false end
      | _, _ => false
      end
  | None => false
  end.
Example ex_lists_ok : checks_str ex_lists (100 * 50) (100 * 200) = true.
Proof. vm_compute. reflexivity. Qed.
