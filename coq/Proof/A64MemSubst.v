(* The two reference-count operations of axcut2aarch64/src/memory.rs (share_block_n, erase_block) on the ISA
   semantics: the code the model emits, sitting in an image with its labels, runs from its first to just past its
   last instruction and has the pure heap-level effect share_h / erase_h of Proof/A64Exec.v.  The header is
   updated by LDR/ADD|SUB/STR through X3 (TEMP2), a spilled pointer is first loaded into X2 (TEMP), and the tests
   are CMP #0 / B.EQ; the two structured code shapes of memory.rs (`skip_if_zero`, `if_zero_then_else`) come as
   execution lemmas first. *)
From Coq Require Import List ZArith NArith String Bool Lia FMapPositive.
From SCC Require Import Base.Sexp Lang.AxSyn Sem.AxSem Model.Backend Model.A64 Sem.A64Sem Generated.Constants
     Proof.A64State Proof.A64ImmHw Proof.A64Imm Proof.A64Sel Proof.A64Exec.
Import ListNotations.
Open Scope Z_scope.

Lemma block_ok_range p : block_ok p -> 0 < p /\ min_int <= p <= max_int.
Proof.
  intros (_ & H). unfold in_heap, HEAP_BASE, HEAP_SIZE in H. apply andb_true_iff in H as [H1 H2].
  apply Z.leb_le in H1, H2. unfold min_int, max_int, two63. lia.
Qed.
Lemma block_ok_nz p : block_ok p -> (p =? 0) = false /\ (wrap p =? 0) = false.
Proof.
  intros B. destruct (block_ok_range p B) as [P R]. rewrite (wrap_in64 p R).
  split; apply Z.eqb_neq; lia.
Qed.

Lemma rget_set_heap s a v r : rget (set_heap s a v) r = rget s r. Proof. destruct r; reflexivity. Qed.

Section HeapSteps.
Variable im : image.

Lemma step_CMPI0 s a x : rget s a = Some x -> step im (CMPI a 0) s = Next (set_flags s (Some (cmp_flags x 0))).
Proof. intros H. cbn [step]. unfold need. now rewrite H. Qed.
Lemma fZ_cmp0 x : fZ (cmp_flags x 0) = (wrap x =? 0).
Proof. unfold cmp_flags. cbn [fZ]. now rewrite Z.sub_0_r. Qed.
Lemma step_BEQ_taken s l f i :
  flags s = Some f -> fZ f = true -> find_label (labels im) l = Some i -> step im (BEQ l) s = Jump s i.
Proof. intros H Zf L. cbn [step]. unfold cond_jump, goto_label. rewrite H. cbn [cond_holds]. now rewrite Zf, L. Qed.
Lemma step_BEQ_not s l f : flags s = Some f -> fZ f = false -> step im (BEQ l) s = Next s.
Proof. intros H Zf. cbn [step]. unfold cond_jump. rewrite H. cbn [cond_holds]. now rewrite Zf. Qed.
Lemma step_B s l i : find_label (labels im) l = Some i -> step im (B l) s = Jump s i.
Proof. intros L. cbn [step]. unfold goto_label. now rewrite L. Qed.
Lemma step_LDR_heap s d r p :
  rget s (X r) = Some p -> block_ok p -> step im (LDR d (X r) 0) s = Next (rset s d (Some (hget (heap s) p))).
Proof.
  intros H B. cbn [step]. unfold ea, need. rewrite H, Z.add_0_r. unfold withm. rewrite mload_heap by exact B. reflexivity.
Qed.
Lemma step_STR_heap s a r p v :
  rget s (X r) = Some p -> block_ok p -> rget s a = Some v -> step im (STR a (X r) 0) s = Next (set_heap s p v).
Proof.
  intros H B A. cbn [step]. unfold ea, need. rewrite H, Z.add_0_r. unfold withm. rewrite A, mstore_heap by exact B. reflexivity.
Qed.
Lemma step_ADDI_reg s d a x i : rget s a = Some x -> step im (ADDI d a i) s = Next (rset s d (Some (wrap (x + i)))).
Proof. intros H. cbn [step]. unfold arith_imm, need. now rewrite H. Qed.
Lemma step_SUBI_reg s d a x i : rget s a = Some x -> step im (SUBI d a i) s = Next (rset s d (Some (wrap (x - i)))).
Proof. intros H. cbn [step]. unfold arith_imm, need. now rewrite H. Qed.

Lemma skip_if_zero_len c body lc : List.length (fst (skip_if_zero c body lc)) = S (S (S (List.length body))).
Proof. unfold skip_if_zero. cbn [fst app List.length]. rewrite app_length. cbn [List.length]. lia. Qed.

Lemma skip_if_zero_frame pc c body lc :
  code_at im pc (fst (skip_if_zero c body lc)) -> labels_at im pc (fst (skip_if_zero c body lc)) ->
  exists l,
    PM.find pc (code im) = Some (CMPI c 0) /\
    PM.find (Pos.succ pc) (code im) = Some (BEQ l) /\
    PM.find (padd pc (2 + List.length body)) (code im) = Some (LAB l) /\
    find_label (labels im) l = Some (padd pc (2 + List.length body)) /\
    code_at im (padd pc 2) body /\ labels_at im (padd pc 2) body.
Proof.
  unfold skip_if_zero. cbn [fst]. set (l := lab (lc + 1)). intros C L. exists l.
  change ([CMPI c 0; BEQ l] ++ body ++ [LAB l])%list with (([CMPI c 0; BEQ l] ++ body) ++ [LAB l])%list in *.
  apply code_at_app in C as [C CL]. apply labels_at_app in L as [L LL].
  apply code_at_app in C as [C0 CB]. apply labels_at_app in L as [_ LB].
  rewrite app_length in CL, LL. cbn [List.length] in *.
  split; [apply (C0 0%nat); reflexivity|]. split; [apply (C0 1%nat); reflexivity|].
  split; [apply (CL 0%nat); reflexivity|]. split; [apply (LL 0%nat); reflexivity|]. split; assumption.
Qed.

(* the pointer test around share and erase: a null pointer only sets the flags, behind the pointer to a
   block the body runs *)
Lemma skip_if_zero_ptr pc s c body lc p :
  let code := fst (skip_if_zero c body lc) in
  code_at im pc code -> labels_at im pc code -> rget s c = Some p -> (p = 0 \/ block_ok p) ->
  let s0 := set_flags s (Some (cmp_flags p 0)) in
  (p = 0 /\ exec_to im pc s (padd pc (List.length code)) s0) \/
  (block_ok p /\ code_at im (padd pc 2) body /\ labels_at im (padd pc 2) body /\
   forall s2, exec_to im (padd pc 2) s0 (padd pc (2 + List.length body)) s2 ->
              exec_to im pc s (padd pc (List.length code)) s2).
Proof.
  intros code C L A PB s0. subst code.
  destruct (skip_if_zero_frame pc c body lc C L) as (l & C0 & C1 & C2 & LL & Cb & Lb). rewrite skip_if_zero_len.
  destruct PB as [->|B]; [left; split; [reflexivity|]|right].
  - eapply exec_next; [exact C0 | apply step_CMPI0; exact A |].
    eapply exec_jump; [exact C1 | eapply step_BEQ_taken; [reflexivity|reflexivity|exact LL] |].
    eapply exec_next; [exact C2 | reflexivity |].
    rewrite <- padd_succ. apply exec_refl.
  - repeat (split; [assumption|]). intros s2 EB.
    eapply exec_next; [exact C0 | apply step_CMPI0; exact A |].
    eapply exec_next; [exact C1 | eapply step_BEQ_not; [reflexivity|rewrite fZ_cmp0; apply (block_ok_nz p B)] |].
    eapply exec_to_trans; [exact EB|].
    eapply exec_next; [exact C2 | reflexivity |].
    rewrite <- padd_succ. apply exec_refl.
Qed.

Lemma share_code_exec pc s r n p :
  code_at im pc (share_code (X r) n) -> r <> 3%N ->
  rget s (X r) = Some p -> block_ok p ->
  exists s', exec_to im pc s (padd pc 3) s' /\
             heap s' = PM.add (key p) (wrap (hget (heap s) p + Z.of_N n)) (heap s) /\
             (forall r', r' <> TEMP2 -> rget s' r' = rget s r') /\
             stack s' = stack s /\ out s' = out s /\ spv s' = spv s.
Proof.
  intros C N3 R B. unfold share_code in C. change REFERENCE_COUNT_OFFSET with 0 in C. change TEMP2 with (X 3) in *.
  eexists. split.
  { nxt C 0%nat; [apply (step_LDR_heap s (X 3) r p R B)|].
    nxt C 1%nat; [apply step_ADDI_reg; apply rget_rset_same; exact I|].
    nxt C 2%nat; [eapply (step_STR_heap _ (X 3) r p); [|exact B|apply rget_rset_same; exact I]|].
    { rewrite !rget_rset_other by congruence. exact R. }
    apply exec_refl. }
  split; [reflexivity|]. split; [|repeat split; reflexivity].
  intros r' N. rewrite rget_set_heap, !rget_rset_other by congruence. reflexivity.
Qed.

Lemma ite_len c tb eb lc :
  List.length (fst (if_zero_then_else c tb eb lc)) = (2 + List.length eb + 2 + List.length tb + 1)%nat.
Proof. unfold if_zero_then_else. cbn [fst]. repeat (rewrite app_length || cbn [List.length]). lia. Qed.

Lemma ite_frame pc c tb eb lc :
  let cs := fst (if_zero_then_else c tb eb lc) in
  code_at im pc cs -> labels_at im pc cs ->
  exists lt le,
    PM.find pc (code im) = Some (CMPI c 0) /\
    PM.find (Pos.succ pc) (code im) = Some (BEQ lt) /\
    code_at im (padd pc 2) eb /\ labels_at im (padd pc 2) eb /\
    PM.find (padd pc (2 + List.length eb)) (code im) = Some (B le) /\
    PM.find (padd pc (3 + List.length eb)) (code im) = Some (LAB lt) /\
    find_label (labels im) lt = Some (padd pc (3 + List.length eb)) /\
    code_at im (padd pc (4 + List.length eb)) tb /\ labels_at im (padd pc (4 + List.length eb)) tb /\
    PM.find (padd pc (4 + List.length eb + List.length tb)) (code im) = Some (LAB le) /\
    find_label (labels im) le = Some (padd pc (4 + List.length eb + List.length tb)).
Proof.
  unfold if_zero_then_else. cbn [fst]. set (lt := lab (lc + 1)). set (le := lab (lc + 2)). intros C L. exists lt, le.
  change ([CMPI c 0; BEQ lt] ++ eb ++ [B le; LAB lt] ++ tb ++ [LAB le])%list
    with ([CMPI c 0; BEQ lt] ++ eb ++ [B le; LAB lt] ++ tb ++ [LAB le])%list in *.
  apply code_at_app in C as [C0 C]. apply labels_at_app in L as [_ L]. cbn [List.length] in C, L.
  apply code_at_app in C as [Ce C]. apply labels_at_app in L as [Le L].
  apply code_at_app in C as [Cm C]. apply labels_at_app in L as [Lm L]. cbn [List.length] in C, L.
  apply code_at_app in C as [Ct C]. apply labels_at_app in L as [Lt L].
  rewrite <- !padd_add in *.
  replace (2 + (List.length eb + 2))%nat with (4 + List.length eb)%nat in * by lia.
  replace (2 + (List.length eb + (2 + List.length tb)))%nat with (4 + List.length eb + List.length tb)%nat in * by lia.
  split; [apply (C0 0%nat); reflexivity|]. split; [apply (C0 1%nat); reflexivity|].
  split; [exact Ce|]. split; [exact Le|].
  split; [apply (Cm 0%nat); reflexivity|].
  split; [replace (3 + List.length eb)%nat with (S (2 + List.length eb)) by lia; rewrite padd_succ; apply (Cm 1%nat); reflexivity|].
  split; [replace (3 + List.length eb)%nat with (S (2 + List.length eb)) by lia; rewrite padd_succ; apply (Lm 1%nat); reflexivity|].
  split; [exact Ct|]. split; [exact Lt|].
  split; [apply (C 0%nat); reflexivity|apply (L 0%nat); reflexivity].
Qed.

(* the condition is zero: the then-branch runs *)
Lemma ite_zero pc s c tb eb lc x s2 :
  let cs := fst (if_zero_then_else c tb eb lc) in
  code_at im pc cs -> labels_at im pc cs -> rget s c = Some x -> (wrap x =? 0) = true ->
  exec_to im (padd pc (4 + List.length eb)) (set_flags s (Some (cmp_flags x 0)))
             (padd pc (4 + List.length eb + List.length tb)) s2 ->
  exec_to im pc s (padd pc (List.length cs)) s2.
Proof.
  intros cs C L A Z EB. subst cs.
  destruct (ite_frame pc c tb eb lc C L) as (lt & le & C0 & C1 & _ & _ & _ & C3 & L3 & _ & _ & C5 & _).
  rewrite ite_len.
  eapply exec_next; [exact C0 | apply step_CMPI0; exact A |].
  eapply exec_jump; [exact C1 | eapply step_BEQ_taken; [reflexivity|rewrite fZ_cmp0; exact Z|exact L3] |].
  eapply exec_next; [exact C3 | reflexivity |].
  rewrite <- padd_succ. change (S (3 + List.length eb)) with (4 + List.length eb)%nat.
  eapply exec_to_trans; [exact EB|].
  eapply exec_next; [exact C5 | reflexivity |].
  rewrite <- padd_succ. replace (S (4 + List.length eb + List.length tb)) with (2 + List.length eb + 2 + List.length tb + 1)%nat by lia.
  apply exec_refl.
Qed.

(* the condition is not zero: the else-branch runs *)
Lemma ite_nz pc s c tb eb lc x s2 :
  let cs := fst (if_zero_then_else c tb eb lc) in
  code_at im pc cs -> labels_at im pc cs -> rget s c = Some x -> (wrap x =? 0) = false ->
  exec_to im (padd pc 2) (set_flags s (Some (cmp_flags x 0))) (padd pc (2 + List.length eb)) s2 ->
  exec_to im pc s (padd pc (List.length cs)) s2.
Proof.
  intros cs C L A NZ EB. subst cs.
  destruct (ite_frame pc c tb eb lc C L) as (lt & le & C0 & C1 & _ & _ & C2 & _ & _ & _ & _ & C5 & L5).
  rewrite ite_len.
  eapply exec_next; [exact C0 | apply step_CMPI0; exact A |].
  eapply exec_next; [exact C1 | eapply step_BEQ_not; [reflexivity|rewrite fZ_cmp0; exact NZ] |].
  eapply exec_to_trans; [exact EB|].
  eapply exec_jump; [exact C2 | apply step_B; exact L5 |].
  eapply exec_next; [exact C5 | reflexivity |].
  rewrite <- padd_succ. replace (S (4 + List.length eb + List.length tb)) with (2 + List.length eb + 2 + List.length tb + 1)%nat by lia.
  apply exec_refl.
Qed.

Lemma erase_valid_exec pc s r lc p f :
  let code := fst (erase_valid_object (X r) lc) in
  code_at im pc code -> labels_at im pc code ->
  r <> 3%N -> r <> 1%N ->
  rget s (X r) = Some p -> block_ok p -> rget s TEMP2 = Some (hget (heap s) p) -> rget s FREE = Some f ->
  exists s' f', exec_to im pc s (padd pc (List.length code)) s' /\
                rget s' FREE = Some f' /\
                (heap s', f') = erase_h p (heap s, f) /\
                (forall r', r' <> FREE -> r' <> TEMP2 -> rget s' r' = rget s r') /\
                stack s' = stack s /\ out s' = out s /\ spv s' = spv s.
Proof.
  intros code C L N3 N1 R B T2 Fr. subst code. unfold erase_valid_object in *.
  change REFERENCE_COUNT_OFFSET with 0 in *. change NEXT_ELEMENT_OFFSET with 0 in *.
  change TEMP2 with (X 3) in *. change FREE with (X 1) in *.
  destruct (ite_frame pc (X 3) _ _ lc C L) as (lt & le & _ & _ & CE & _ & _ & _ & _ & CT & _ & _ & _).
  set (sf := set_flags s (Some (cmp_flags (hget (heap s) p) 0))).
  unfold erase_h. cbn [fst snd]. rewrite (proj1 (block_ok_nz p B)).
  destruct (wrap (hget (heap s) p) =? 0) eqn:E.
  - (* header zero: push on the deferred-free list *)
    eexists. exists p. split.
    { eapply ite_zero; [exact C|exact L|exact T2|exact E|]. fold sf.
      nxt CT 0%nat; [eapply (step_STR_heap _ (X 1) r p); [|exact B|]|].
      { unfold sf. rewrite rget_set_flags. exact R. } { unfold sf. rewrite rget_set_flags. exact Fr. }
      nxt CT 1%nat; [reflexivity|]. apply exec_refl. }
    split; [rewrite rget_rset_same by exact I; rewrite rget_set_heap; unfold sf; rewrite rget_set_flags; exact R|].
    split; [reflexivity|].
    split; [intros r' NF NT; rewrite rget_rset_other by congruence; rewrite rget_set_heap; apply rget_set_flags|].
    repeat split; reflexivity.
  - (* header non-zero: decrement *)
    eexists. exists f. split.
    { eapply ite_nz; [exact C|exact L|exact T2|exact E|]. fold sf.
      nxt CE 0%nat; [apply step_SUBI_reg; unfold sf; rewrite rget_set_flags; exact T2|].
      nxt CE 1%nat; [eapply (step_STR_heap _ (X 3) r p); [|exact B|apply rget_rset_same; exact I]|].
      { rewrite rget_rset_other by congruence. unfold sf. rewrite rget_set_flags. exact R. }
      apply exec_refl. }
    split; [rewrite rget_set_heap, rget_rset_other by congruence; unfold sf; rewrite rget_set_flags; exact Fr|].
    split; [reflexivity|].
    split; [intros r' NF NT; rewrite rget_set_heap, rget_rset_other by congruence; apply rget_set_flags|].
    repeat split; reflexivity.
Qed.
End HeapSteps.

Lemma a64_share_reg im pc s r n lc p :
  let code := fst (skip_if_zero (X r) (share_code (X r) n) lc) in
  code_at im pc code -> labels_at im pc code -> r <> 3%N ->
  rget s (X r) = Some p -> (p = 0 \/ block_ok p) ->
  exists s', exec_to im pc s (padd pc (List.length code)) s' /\
             heap s' = fst (share_h p (Z.of_N n) (heap s, 0)) /\
             (forall r', r' <> TEMP2 -> rget s' r' = rget s r') /\
             stack s' = stack s /\ out s' = out s /\ spv s' = spv s.
Proof.
  intros code C L N3 G PB. subst code. unfold share_h. cbn [fst snd].
  destruct (skip_if_zero_ptr im pc s (X r) _ lc p C L G PB) as [[-> E]|(B & Cb & Lb & K)].
  - eexists. split; [exact E|]. repeat split; auto.
  - rewrite (proj1 (block_ok_nz p B)).
    destruct (share_code_exec im (padd pc 2) (set_flags s (Some (cmp_flags p 0))) r n p Cb N3) as (s' & E & H' & R' & S' & O' & P');
      [rewrite rget_set_flags; exact G|exact B|].
    exists s'. split; [exact (K s' E)|].
    split; [exact H'|]. split; [intros r' N; rewrite R' by exact N; apply rget_set_flags|]. repeat split; assumption.
Qed.

Lemma a_erase_block_AR r lc :
  a_erase_block (AR r) lc =
  skip_if_zero r ([LDR TEMP2 r REFERENCE_COUNT_OFFSET] ++ fst (erase_valid_object r lc)) (snd (erase_valid_object r lc)).
Proof. reflexivity. Qed.

Lemma a64_erase_reg im pc s r lc p f :
  let code := fst (a_erase_block (AR (X r)) lc) in
  code_at im pc code -> labels_at im pc code -> r <> 3%N -> r <> 1%N ->
  rget s (X r) = Some p -> (p = 0 \/ block_ok p) -> rget s FREE = Some f ->
  exists s' f', exec_to im pc s (padd pc (List.length code)) s' /\
             rget s' FREE = Some f' /\
             (heap s', f') = erase_h p (heap s, f) /\
             (forall r', r' <> FREE -> r' <> TEMP2 -> rget s' r' = rget s r') /\
             stack s' = stack s /\ out s' = out s /\ spv s' = spv s.
Proof.
  intros code C L N3 N1 G PB Fr. subst code. rewrite a_erase_block_AR in *.
  destruct (skip_if_zero_ptr im pc s (X r) _ _ p C L G PB) as [[-> E]|(B & Cb & Lb & K)].
  - eexists. exists f. split; [exact E|]. split; [rewrite rget_set_flags; exact Fr|]. repeat split; auto.
  - apply code_at_cons in Cb as [C0 Cb]. apply labels_at_tail in Lb.
    change REFERENCE_COUNT_OFFSET with 0 in C0. change TEMP2 with (X 3) in *. change FREE with (X 1) in *.
    set (s0 := set_flags s (Some (cmp_flags p 0))) in *.
    set (s1 := rset s0 (X 3) (Some (hget (heap s0) p))).
    destruct (erase_valid_exec im (Pos.succ (padd pc 2)) s1 r lc p f Cb Lb N3 N1) as (s' & f' & E & F' & H' & R' & S' & O' & P').
    { unfold s1. rewrite rget_rset_other by congruence. unfold s0. rewrite rget_set_flags. exact G. }
    { exact B. } { apply rget_rset_same. exact I. }
    { unfold s1. rewrite rget_rset_other by discriminate. unfold s0. rewrite rget_set_flags. exact Fr. }
    exists s', f'. split.
    { apply K. eapply exec_next; [exact C0 | apply (step_LDR_heap im s0 (X 3) r p); [unfold s0; rewrite rget_set_flags; exact G|exact B] |].
      cbn [app List.length]. rewrite <- padd_succ in E. exact E. }
    split; [exact F'|]. split; [exact H'|].
    split; [intros r' NF NT; rewrite R' by assumption; unfold s1; rewrite rget_rset_other by congruence; apply rget_set_flags|].
    repeat split; assumption.
Qed.

Theorem a64_share_ok im pc s sp t n lc p f :
  let code := fst (a_share_block_n t n lc) in
  code_at im pc code -> labels_at im pc code ->
  frame_ok s sp -> operand_ok t ->
  lget s sp t = Some p -> (p = 0 \/ block_ok p) ->
  exists s', exec_to im pc s (padd pc (List.length code)) s' /\
             (heap s', f) = share_h p (Z.of_N n) (heap s, f) /\
             (forall r, r <> TEMP -> r <> TEMP2 -> rget s' r = rget s r) /\
             stack s' = stack s /\ out s' = out s.
Proof.
  intros code C L F (T & NT & NT2) G PB. subst code.
  assert (SH : forall h, share_h p (Z.of_N n) (h, f) = (fst (share_h p (Z.of_N n) (h, 0)), f)).
  { intros h. unfold share_h. cbn [fst snd]. destruct (p =? 0); reflexivity. }
  rewrite SH.
  destruct t as [[r| |]|q]; cbn [loc_ok gp lget] in *; try tauto.
  - destruct (a64_share_reg im pc s r n lc p C L) as (s' & E & H' & R' & S' & O' & _); auto.
    { intros ->. apply NT2. reflexivity. }
    exists s'. rewrite H'. repeat split; auto.
  - change (fst (a_share_block_n (AS q) n lc))
      with (LDR TEMP SP (stack_offset q) :: fst (a_share_block_n (AR TEMP) n lc)) in *.
    apply code_at_cons in C as [C0 C]. apply labels_at_tail in L. change TEMP with (X 2) in *.
    destruct (a64_share_reg im (Pos.succ pc) (rset s (X 2) (Some p)) 2%N n lc p C L) as (s' & E & H' & R' & S' & O' & _); auto.
    { congruence. } { apply rget_rset_same. exact I. }
    exists s'. split; [|split; [now rewrite H'|split; [|split; assumption]]].
    + eapply exec_next; [exact C0 | |exact E]. rewrite (step_LDR_slot im s sp F) by exact T. now rewrite G.
    + intros r N1 N2. rewrite R' by exact N2. apply rget_rset_other. congruence.
Qed.

(* erase of a pointer that the instruction i has just put into TEMP: the spill-slot case of erase_block, and the
   erasure of a child in acquire_block *)
Lemma a64_erase_loaded im pc i s lc p f :
  let code := i :: fst (a_erase_block (AR TEMP) lc) in
  code_at im pc code -> labels_at im pc code ->
  step im i s = Next (rset s TEMP (Some p)) -> (p = 0 \/ block_ok p) -> rget s FREE = Some f ->
  exists s' f', exec_to im pc s (padd pc (List.length code)) s' /\
             rget s' FREE = Some f' /\
             (heap s', f') = erase_h p (heap s, f) /\
             (forall r, r <> TEMP -> r <> TEMP2 -> r <> FREE -> rget s' r = rget s r) /\
             stack s' = stack s /\ out s' = out s.
Proof.
  intros code C L St PB Fr. subst code.
  apply code_at_cons in C as [C0 C]. apply labels_at_tail in L. change TEMP with (X 2) in *.
  destruct (a64_erase_reg im (Pos.succ pc) (rset s (X 2) (Some p)) 2%N lc p f C L) as (s' & f' & E & F' & H' & R' & S' & O' & _); auto.
  { congruence. } { congruence. } { apply rget_rset_same. exact I. }
  { rewrite rget_rset_other by discriminate. exact Fr. }
  exists s', f'. split; [|split; [exact F'|split; [exact H'|split; [|split; assumption]]]].
  - eapply exec_next; [exact C0|exact St|exact E].
  - intros r N1 N2 N3. rewrite R' by assumption. apply rget_rset_other. congruence.
Qed.

Theorem a64_erase_ok im pc s sp t lc p f :
  let code := fst (a_erase_block t lc) in
  code_at im pc code -> labels_at im pc code ->
  frame_ok s sp -> operand_ok t -> t <> AR FREE ->
  lget s sp t = Some p -> (p = 0 \/ block_ok p) ->
  rget s FREE = Some f ->
  exists s' f', exec_to im pc s (padd pc (List.length code)) s' /\
             rget s' FREE = Some f' /\
             (heap s', f') = erase_h p (heap s, f) /\
             (forall r, r <> TEMP -> r <> TEMP2 -> r <> FREE -> rget s' r = rget s r) /\
             stack s' = stack s /\ out s' = out s.
Proof.
  intros code C L F (T & NT & NT2) NF G PB Fr. subst code.
  destruct t as [[r| |]|q]; cbn [loc_ok gp lget] in *; try tauto.
  - destruct (a64_erase_reg im pc s r lc p f C L) as (s' & f' & E & F' & H' & R' & S' & O' & _); auto.
    { intros ->. apply NT2. reflexivity. } { intros ->. apply NF. reflexivity. }
    exists s', f'. repeat split; auto.
  - apply (a64_erase_loaded im pc (LDR TEMP SP (stack_offset q)) s lc p f C L); [|exact PB|exact Fr].
    rewrite (step_LDR_slot im s sp F) by exact T. now rewrite G.
Qed.
