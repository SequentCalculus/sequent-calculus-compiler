(* C06, heap statements: every statement the linearization pass produces passes the annotation check
   (Proof/X86HAnn.v) in the context it was linearized in: the `Create` annotation the pass writes IS the end of
   the context (names included), and the clause bodies are linearized in exactly the context the check uses. *)
From Coq Require Import String List ZArith NArith Bool Lia.
From SCC Require Import Base.Sexp Lang.AxSyn Model.Linearize Model.LinCheck.
From SCC Require Import Proof.LinBasics Proof.LinTyping Proof.LinearizeProof Proof.X86HAnn.
Import ListNotations.
Open Scope list_scope.

Lemma freshen_length : forall c cl m, length (fst (freshen c cl m)) = length c.
Proof.
  induction c as [|b r IH]; intros cl m; cbn [freshen]; [reflexivity|].
  destruct (mem (idn (bvar b)) cl).
  - specialize (IH cl (m + 1)%N). destruct (freshen r cl (m + 1)%N) as [r' m']. cbn [fst length] in *. now rewrite IH.
  - specialize (IH (idn (bvar b) :: cl) m). destruct (freshen r (idn (bvar b) :: cl) m) as [r' m']. cbn [fst length] in *. now rewrite IH.
Qed.

Lemma map_fst_vars : forall (a b : ctx), length a = length b -> map fst (combine a (vars b)) = a.
Proof. intros a b H. apply combine_map_fst. now rewrite vars_length. Qed.

Lemma map_fst_self_re : forall c, map fst (self_re c) = c.
Proof. intros c. unfold self_re. now apply map_fst_vars. Qed.

Lemma ctx_eqb_refl : forall c, ctx_eqb c c = true.
Proof. intros c. now apply ctx_eqb_eq. Qed.

Lemma split_lastn_1 : forall (a : ctx) b, split_lastn 1 (a ++ [b]) = Some (a, [b]).
Proof. intros a b. exact (split_lastn_app a [b]). Qed.

(* renaming does not introduce explicit substitutions *)
Lemma has_subst_cls_sub : forall su cls,
  Forall (fun c => has_subst (sub_s su (cl_body c)) = has_subst (cl_body c)) cls ->
  existsb (fun c => has_subst (cl_body c)) (map (fun c => (cl_xtor c, cl_ctx c, sub_s su (cl_body c))) cls)
  = existsb (fun c => has_subst (cl_body c)) cls.
Proof.
  intros su cls H; induction H as [|c r Hc _ IH]; [reflexivity|].
  cbn [map existsb]. rewrite IH. unfold cl_body at 1. cbn [snd]. now rewrite Hc.
Qed.
Lemma has_subst_sub : forall su s, has_subst (sub_s su s) = has_subst s.
Proof.
  intros su s; induction s using stmt_ind2; try reflexivity; try (cbn [sub_s has_subst]; assumption).
  - rewrite sub_s_switch, !has_subst_switch. now apply has_subst_cls_sub.
  - rewrite sub_s_create, !has_subst_create, IHs. f_equal. now apply has_subst_cls_sub.
  - cbn [sub_s has_subst]. now rewrite IHs1, IHs2.
Qed.

Lemma existsb_false_In' : forall {A} (P : A -> bool) l x, existsb P l = false -> In x l -> P x = false.
Proof.
  intros A P l x H Hin. destruct (P x) eqn:E; [|reflexivity].
  assert (existsb P l = true) by (apply existsb_exists; eauto). congruence.
Qed.

Lemma ann_check_subst : forall c re next, ann_check c (Substitute re next) = ann_check (map fst re) next.
Proof. reflexivity. Qed.

(* a statement linearized in the context `nc` it needs, behind a substitution when the context at hand is another *)
Lemma ann_check_narrow c nc (s : stmt) (m : N) :
  ann_check nc s = true ->
  ann_check c (fst (if ctx_eqb c nc then (s, m) else (Substitute (self_re nc) s, m))) = true.
Proof.
  intros H. destruct (ctx_eqb c nc) eqn:E; cbn [fst].
  - apply ctx_eqb_eq in E. rewrite E. exact H.
  - rewrite ann_check_subst, map_fst_self_re. exact H.
Qed.

Lemma lin_cls_ann : forall (L : stmt -> ctx -> N -> stmt * N) (mk : ctx -> ctx) cls m,
  (forall cl m0, In cl cls -> ann_check (mk (cl_ctx cl)) (fst (L (cl_body cl) (mk (cl_ctx cl)) m0)) = true) ->
  forallb (fun cl => ann_check (mk (cl_ctx cl)) (cl_body cl)) (fst (lin_cls L mk cls m)) = true.
Proof.
  intros L mk cls; induction cls as [|[[x cc] body] r IH]; intros m H; cbn [lin_cls]; [reflexivity|].
  pose proof (H (x, cc, body) m (or_introl eq_refl)) as H1. unfold cl_ctx, cl_body in H1; cbn [fst snd] in H1.
  destruct (L body (mk cc) m) as [b' m'] eqn:E. cbn [fst] in H1.
  specialize (IH m' (fun cl m0 Hin => H cl m0 (or_intror Hin))).
  destruct (lin_cls L mk r m') as [r' m''] eqn:E'. cbn [fst] in *.
  cbn [forallb]. unfold cl_ctx at 1, cl_body at 1. cbn [fst snd]. now rewrite H1, IH.
Qed.

Theorem lin_ann : forall f s c m, has_subst s = false -> ann_check c (fst (lin f s c m)) = true.
Proof.
  induction f as [|f IH]; intros s c m Hs; [reflexivity|].
  destruct s as [re next|l args|v t tag args next|v t cls|v t e cls next|v tag t args|n v next|a o b v next|nl v next|so a b t e|v].
  - discriminate.
  - rewrite lin_call. destruct (ctx_eqb c args); [reflexivity|].
    destruct (freshen args [] m) as [fr m1]. reflexivity.
  - rewrite lin_let. cbv zeta. cbn [has_subst] in Hs.
    set (nc := filter_by_set c (fv next)).
    destruct (ctx_eqb c (nc ++ args)) eqn:E.
    + apply ctx_eqb_eq in E.
      pose proof (IH next (nc ++ [mkb v Prd t]) m Hs) as Hn.
      destruct (lin f next (nc ++ [mkb v Prd t]) m) as [n' m1]. cbn [fst] in *.
      cbn [ann_check]. rewrite E, split_lastn_app. exact Hn.
    + pose proof (freshen_length args (ids nc) m) as Hl.
      destruct (freshen args (ids nc) m) as [args' m1]. cbn [fst] in Hl.
      pose proof (IH next (nc ++ [mkb v Prd t]) m1 Hs) as Hn.
      destruct (lin f next (nc ++ [mkb v Prd t]) m1) as [n' m2]. cbn [fst] in *.
      cbn [ann_check]. rewrite map_fst_vars by (rewrite !app_length; lia).
      rewrite split_lastn_app. exact Hn.
  - rewrite lin_switch. cbv zeta. rewrite has_subst_switch in Hs.
    set (nc := filter_by_set c (fv_clauses cls)).
    assert (Hcl : forall m0, ann_clauses_sw nc (fst (lin_cls (lin f) (fun cc => nc ++ cc) cls m0)) = true).
    { intros m0. unfold ann_clauses_sw. apply (lin_cls_ann (lin f) (fun cc => nc ++ cc)).
      intros cl m' Hin. apply IH. exact (existsb_false_In' _ _ _ Hs Hin). }
    specialize (Hcl m). destruct (lin_cls (lin f) (fun cc => nc ++ cc) cls m) as [cls' m1]. cbn [fst] in *.
    destruct (ctx_eqb c (nc ++ [mkb v Prd t])) eqn:E.
    + apply ctx_eqb_eq in E. cbn [fst]. rewrite ann_check_switch, E, split_lastn_1. exact Hcl.
    + destruct (mem (idn v) (ids nc)); cbn [fst]; rewrite ann_check_subst;
        (rewrite map_fst_vars by (rewrite !app_length; reflexivity));
        rewrite ann_check_switch, split_lastn_1; exact Hcl.
  - rewrite lin_create. cbv zeta. rewrite has_subst_create in Hs. apply orb_false_iff in Hs. destruct Hs as [Hsc Hsn].
    set (cn := filter_by_set c (fv next)).
    set (cc := filter_by_set (skipn (length cn) c ++ firstn (length cn) c) (fv_clauses cls)).
    assert (Hcl : forall m0, ann_clauses_cr cc (fst (lin_cls (lin f) (fun x => x ++ cc) cls m0)) = true).
    { intros m0. unfold ann_clauses_cr. apply (lin_cls_ann (lin f) (fun x => x ++ cc)).
      intros cl m' Hin. apply IH. exact (existsb_false_In' _ _ _ Hsc Hin). }
    specialize (Hcl m). destruct (lin_cls (lin f) (fun x => x ++ cc) cls m) as [cls' m1]. cbn [fst] in *.
    destruct (ctx_eqb c (cn ++ cc)) eqn:E.
    + apply ctx_eqb_eq in E.
      pose proof (IH next (cn ++ [mkb v Cns t]) m1 Hsn) as Hn.
      destruct (lin f next (cn ++ [mkb v Cns t]) m1) as [n' m2]. cbn [fst] in *.
      rewrite ann_check_create, E, split_lastn_app, ctx_eqb_refl, Hcl, Hn. reflexivity.
    + pose proof (freshen_length cn (ids cc) m1) as Hl.
      destruct (freshen cn (ids cc) m1) as [cnf m2]. cbn [fst] in Hl.
      pose proof (IH (sub_s (combine (ids cn) (vars cnf)) next) (cnf ++ [mkb v Cns t]) m2) as Hn.
      rewrite has_subst_sub in Hn. specialize (Hn Hsn).
      destruct (lin f (sub_s (combine (ids cn) (vars cnf)) next) (cnf ++ [mkb v Cns t]) m2) as [n' m3]. cbn [fst] in *.
      rewrite ann_check_subst, map_fst_vars by (rewrite !app_length; lia).
      rewrite ann_check_create, split_lastn_app, ctx_eqb_refl, Hcl, Hn. reflexivity.
  - rewrite lin_invoke. destruct (ctx_eqb c (args ++ [mkb v Cns t])); [reflexivity|].
    destruct (freshen args [idn v] m) as [fr m1]. reflexivity.
  - rewrite lin_literal. cbv zeta. cbn [has_subst] in Hs.
    set (nc := filter_by_set c (fv next)).
    pose proof (IH next (nc ++ [mkb v Ext I64]) m Hs) as Hn.
    destruct (lin f next (nc ++ [mkb v Ext I64]) m) as [n' m1]. cbn [fst] in *.
    apply ann_check_narrow. exact Hn.
  - rewrite lin_op. cbv zeta. cbn [has_subst] in Hs.
    set (nc := filter_by_set c (add (idn b) (add (idn a) (fv next)))).
    pose proof (IH next (nc ++ [mkb v Ext I64]) m Hs) as Hn.
    destruct (lin f next (nc ++ [mkb v Ext I64]) m) as [n' m1]. cbn [fst] in *.
    apply ann_check_narrow. exact Hn.
  - rewrite lin_print. cbv zeta. cbn [has_subst] in Hs.
    set (nc := filter_by_set c (add (idn v) (fv next))).
    pose proof (IH next nc m Hs) as Hn.
    destruct (lin f next nc m) as [n' m1]. cbn [fst] in *.
    apply ann_check_narrow. exact Hn.
  - rewrite lin_ifc. cbn [has_subst] in Hs. apply orb_false_iff in Hs. destruct Hs as [Hst Hse].
    pose proof (IH t c m Hst) as Ht.
    destruct (lin f t c m) as [t' m1]. cbn [fst] in Ht.
    pose proof (IH e c m1 Hse) as He.
    destruct (lin f e c m1) as [e' m2]. cbn [fst] in *.
    cbn [ann_check]. now rewrite Ht, He.
  - reflexivity.
Qed.

Lemma lin_defs_ann : forall ds m, (forall d, In d ds -> has_subst (dbody d) = false) ->
  forallb (fun d => ann_check (dctx d) (dbody d)) (fst (lin_defs ds m)) = true.
Proof.
  induction ds as [|d r IH]; intros m H; cbn [lin_defs]; [reflexivity|].
  pose proof (lin_ann (stmt_size (dbody d)) (dbody d) (dctx d) m (H d (or_introl eq_refl))) as Hd.
  unfold lin_def. destruct (lin (stmt_size (dbody d)) (dbody d) (dctx d) m) as [b m1]. cbn [fst] in Hd.
  specialize (IH m1 (fun d0 Hin => H d0 (or_intror Hin))).
  destruct (lin_defs r m1) as [r' m2]. cbn [fst] in *.
  cbn [forallb dctx dbody]. now rewrite Hd, IH.
Qed.

(* every program the linearization pass produces passes the annotation check *)
Theorem linearize_ann : forall p, prog_ok p = true -> ann_check_prog (linearize p) = true.
Proof.
  intros p H. unfold ann_check_prog, linearize.
  pose proof (lin_defs_ann (pdefs p) (pmax p)) as Hd.
  destruct (lin_defs (pdefs p) (pmax p)) as [ds m]. cbn [fst pdefs] in *.
  apply Hd. intros d Hin.
  destruct (def_ok_inv _ _ _ (prog_ok_defs p H d Hin)) as [Hax _].
  exact (ax_check_no_subst _ _ _ Hax).
Qed.
