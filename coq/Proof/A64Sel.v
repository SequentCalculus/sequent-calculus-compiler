(* Instruction-selection lemmas for the AArch64 back end (L1 -> L2 of DESIGN.md C07): the code the
   MODEL of axcut2aarch64::code emits for one abstract operation, executed on the ISA semantics of
   Sem/A64Sem.v, has the abstract operation's effect for EVERY placement of target and operands in
   registers or spill slots, any aliasing, and every register/memory contents, and changes nothing
   but the target and the documented scratch (TEMP = X2, TEMP2 = X3; for `rem` with everything
   spilled also the scratch slot SPILL_TEMP, with X10 evacuated and restored). *)
From Coq Require Import List ZArith NArith String Bool Lia FMapPositive.
From SCC Require Import Base.Sexp Lang.AxSyn Sem.AxSem Model.Backend Model.A64 Sem.A64Sem Generated.Constants
  Proof.A64State Proof.A64ImmHw Proof.A64Imm.
Import ListNotations.
Open Scope Z_scope.

(* the model's config functions against the crate's values *)
Lemma a64_stack_offset_samples :
  map stack_offset [0; 1; 2; 3; 4; 5; 6; 7]%N = A64C.stack_offset_samples.
Proof. reflexivity. Qed.
Lemma a64_field_offset_samples :
  map (field_offset Fst) [0; 1; 2; 3]%N = A64C.field_offset_fst /\
  map (field_offset Snd) [0; 1; 2; 3]%N = A64C.field_offset_snd.
Proof. split; reflexivity. Qed.
Lemma a64_jump_length_samples :
  map jump_length [0; 1; 2; 3; 4; 5]%N = A64C.jump_length_samples.
Proof. reflexivity. Qed.
(* a fixed-size jump (B) is one 4-byte instruction: the table stride of jump_length is the ISA's *)
Lemma a64_jump_length_is_isize l n : jump_length n = Z.of_N n * isize (B l).
Proof. unfold jump_length; cbn [isize]; lia. Qed.

Definition preserved (s s' : astate) (sp : Z) (t : atemp) : Prop :=
  (forall l, loc_ok l -> l <> t -> l <> AR TEMP -> l <> AR TEMP2 -> lget s' sp l = lget s sp l) /\
  heap s' = heap s /\ out s' = out s /\ flags s' = flags s /\ frame_ok s' sp.

(* The proofs below compose code fragments, each of which writes a few locations; [same_except D]
   is the relation that composes: [s'] differs from [s] at most in the locations listed in [D].
   Only the theorems' conclusions are phrased with [preserved] and its variants. *)
Definition same_except (D : list atemp) (s s' : astate) (sp : Z) : Prop :=
  (forall l, loc_ok l -> ~ In l D -> lget s' sp l = lget s sp l) /\
  heap s' = heap s /\ out s' = out s /\ flags s' = flags s /\ frame_ok s' sp.

Lemma same_except_refl D s sp : frame_ok s sp -> same_except D s s sp.
Proof. intros F. split; [reflexivity|auto]. Qed.
Lemma same_except_frame D s s' sp : same_except D s s' sp -> frame_ok s' sp.
Proof. intros P. apply P. Qed.
Lemma same_except_lset D s s' sp u v :
  same_except D s s' sp -> loc_ok u -> same_except (u :: D) s (lset s' sp u v) sp.
Proof.
  intros (L & H & O & Fl & F) U.
  split; [|rewrite heap_lset, out_lset, flags_lset; auto using frame_ok_lset].
  intros l Ll N. rewrite lget_lset_other; [apply L; auto; intros I; apply N; now right|apply F|exact U|exact Ll|].
  intros ->. apply N. now left.
Qed.
Lemma same_except_write s sp u v : frame_ok s sp -> loc_ok u -> same_except [u] s (lset s sp u v) sp.
Proof. intros F U. apply same_except_lset; [apply same_except_refl, F|exact U]. Qed.
Lemma same_except_trans D1 D2 s s1 s2 sp :
  same_except D1 s s1 sp -> same_except D2 s1 s2 sp -> same_except (D1 ++ D2) s s2 sp.
Proof.
  intros (L1 & H1 & O1 & F1 & _) (L2 & H2 & O2 & F2 & Fr).
  split; [|rewrite H2, O2, F2; auto].
  intros l L N. rewrite L2, L1; auto; intros I; apply N, in_or_app; auto.
Qed.
Lemma same_except_restore u D s s' sp :
  same_except (u :: D) s s' sp -> lget s' sp u = lget s sp u -> same_except D s s' sp.
Proof.
  intros (L & R) E. split; [|exact R]. intros l Ll N.
  destruct (atemp_eqb_spec u l) as [<-|NE]; [exact E|]. apply L; [exact Ll|]. intros [H|H]; auto.
Qed.
Lemma same_except_incl D D' s s' sp : same_except D s s' sp -> incl D D' -> same_except D' s s' sp.
Proof. intros (L & R) I. split; [|exact R]. intros l Ll N. apply L; auto. Qed.

Lemma same_except_preserved D s s' sp t :
  same_except D s s' sp -> incl D [t; AR TEMP; AR TEMP2] -> preserved s s' sp t.
Proof.
  intros (L & R) I. split; [|exact R]. intros l Ll N1 N2 N3. apply L; [exact Ll|]. intros H.
  destruct (I l H) as [E|[E|[E|[]]]]; congruence.
Qed.

(* reading a location through a chain of writes *)
Ltac rd :=
  repeat (cbn [lget lset];
    first [ rewrite rget_set_flags | rewrite sget_set_flags | rewrite rget_sset | rewrite sget_rset
          | rewrite rget_rset_same by exact I | rewrite sget_sset_same
          | rewrite rget_rset_other by congruence
          | rewrite sget_sset_other by (first [assumption | congruence]) ]).
Ltac consts := rewrite ?TEMP_is, ?TEMP2_is, ?TEMPORARY_TEMP_is, ?SPILL_TEMP_is in *.
Ltac frame :=
  repeat first [ apply frame_ok_set_flags | apply frame_ok_sset | apply frame_ok_rset; [discriminate|] | assumption ].
Ltac fields := rewrite ?heap_rset, ?out_rset, ?flags_rset, ?heap_sset, ?out_sset, ?flags_sset; try reflexivity.

Section Sel.
Variable im : image.

Lemma run_straight_seq c1 c2 s s1 :
  run_straight im c1 s = MOk s1 -> run_straight im (c1 ++ c2) s = run_straight im c2 s1.
Proof. intros H. now rewrite run_straight_app, H. Qed.

Lemma run_straight_cons c cs s s1 : step im c s = Next s1 -> run_straight im (c :: cs) s = run_straight im cs s1.
Proof. intros H. cbn [run_straight]. now rewrite H. Qed.

Lemma move_to_register_ok s sp r t :
  frame_ok s sp -> loc_ok t ->
  run_straight im (move_to_register r t) s = MOk (rset s r (lget s sp t)).
Proof.
  intros F T. destruct t as [q|p]; cbn [move_to_register run_straight lget].
  - reflexivity.
  - now rewrite (step_LDR_slot im s sp F).
Qed.
Lemma move_from_register_ok s sp t r :
  frame_ok s sp -> loc_ok t ->
  run_straight im (move_from_register t r) s = MOk (lset s sp t (rget s r)).
Proof.
  intros F T. destruct t as [q|p]; cbn [move_from_register run_straight lset].
  - reflexivity.
  - now rewrite (step_STR_slot im s sp F).
Qed.

(* An operand is used in its own register, or in the scratch register [sc] after a load from its slot;
   a result is computed into the target's own register, or into TEMP and then stored to the slot. *)
Definition operand_reg (sc : areg) (t : atemp) : areg := match t with AR r => r | AS _ => sc end.
Definition operand_load (sc : areg) (t : atemp) : list acode :=
  match t with AR _ => [] | AS p => [LDR sc SP (stack_offset p)] end.
Definition result_store (t : atemp) : list acode :=
  match t with AR _ => [] | AS p => [STR TEMP SP (stack_offset p)] end.

Lemma operand_reg_gp sc t : gp sc -> loc_ok t -> gp (operand_reg sc t).
Proof. intros G T. destruct t; assumption. Qed.
Lemma operand_reg_neq sc t r : t <> AR r -> sc <> r -> operand_reg sc t <> r.
Proof. destruct t; cbn; congruence. Qed.
Lemma operand_reg_cases sc t : AR (operand_reg sc t) = t \/ operand_reg sc t = sc.
Proof. destruct t; auto. Qed.

Lemma operand_load_ok s sp sc t :
  frame_ok s sp -> loc_ok t -> gp sc ->
  exists s', run_straight im (operand_load sc t) s = MOk s' /\
             rget s' (operand_reg sc t) = lget s sp t /\ same_except [AR sc] s s' sp.
Proof.
  intros F T G. destruct t as [r|p]; cbn [operand_load operand_reg run_straight].
  - exists s. auto using same_except_refl.
  - rewrite (step_LDR_slot im s sp F) by exact T. exists (lset s sp (AR sc) (sget s sp p)).
    split; [reflexivity|]. split; [apply rget_rset_same, G|apply same_except_write; assumption].
Qed.
Lemma result_store_ok D c s s1 sp t v :
  loc_ok t -> run_straight im c s = MOk s1 -> rget s1 (operand_reg TEMP t) = v -> same_except D s s1 sp ->
  exists s', run_straight im (c ++ result_store t) s = MOk s' /\ lget s' sp t = v /\ same_except (t :: D) s s' sp.
Proof.
  intros T R <- P. rewrite (run_straight_seq _ _ _ _ R).
  destruct t as [r|p]; cbn [result_store operand_reg run_straight].
  - exists s1. split; [reflexivity|]. split; [reflexivity|]. apply (same_except_incl _ _ _ _ _ P), incl_tl, incl_refl.
  - rewrite (step_STR_slot im s1 sp (same_except_frame _ _ _ _ P)) by exact T.
    exists (lset s1 sp (AS p) (rget s1 TEMP)). split; [reflexivity|]. split; [apply sget_sset_same|].
    apply same_except_lset; [exact P|exact T].
Qed.

Lemma to_target_ok c s s1 sp t v :
  loc_ok t -> run_straight im c s = MOk s1 -> rget s1 (operand_reg TEMP t) = v ->
  same_except [AR (operand_reg TEMP t)] s s1 sp ->
  exists s', run_straight im (c ++ result_store t) s = MOk s' /\ lget s' sp t = v /\ preserved s s' sp t.
Proof.
  intros T R V P. destruct (result_store_ok _ c s s1 sp t v T R V P) as (s' & R' & V' & P').
  exists s'. split; [exact R'|]. split; [exact V'|]. apply (same_except_preserved _ _ _ _ _ P').
  clear. intros l. cbn [In]. destruct (operand_reg_cases TEMP t) as [->| ->]; tauto.
Qed.

(* The scratch register of a second operand: TEMP2 when the first one occupies TEMP. *)
Definition second_scratch (s1 : atemp) : areg := match s1 with AR r1 => scratch_for r1 | AS _ => TEMP2 end.

Lemma scratch_for_other r : r <> TEMP -> scratch_for r = TEMP.
Proof. unfold scratch_for. destruct (areg_eqb_spec r TEMP); congruence. Qed.
Lemma second_scratch_cases s1 :
  second_scratch s1 = TEMP2 /\ operand_reg TEMP s1 = TEMP \/ second_scratch s1 = TEMP /\ operand_reg TEMP s1 <> TEMP.
Proof.
  destruct s1 as [r1|p1]; [|now left]. unfold second_scratch, scratch_for, operand_reg.
  destruct (areg_eqb_spec r1 TEMP); auto.
Qed.

Lemma second_scratch_neq s1 : operand_reg TEMP s1 <> second_scratch s1.
Proof. destruct (second_scratch_cases s1) as [(-> & ->)|(-> & N)]; [discriminate|exact N]. Qed.

Lemma operands_load_ok s sp t1 t2 a b :
  frame_ok s sp -> loc_ok t1 -> loc_ok t2 -> t2 <> AR TEMP ->
  lget s sp t1 = Some a -> lget s sp t2 = Some b ->
  exists s', run_straight im (operand_load TEMP t1 ++ operand_load (second_scratch t1) t2) s = MOk s' /\
             rget s' (operand_reg TEMP t1) = Some a /\ rget s' (operand_reg (second_scratch t1) t2) = Some b /\
             same_except [AR TEMP; AR TEMP2] s s' sp.
Proof.
  intros F T1 T2 N A B.
  assert (G : gp (second_scratch t1)) by (destruct (second_scratch_cases t1) as [(-> & _)|(-> & _)]; exact I).
  destruct (operand_load_ok s sp TEMP t1 F T1 I) as (sa & Ra & Va & Pa).
  destruct (operand_load_ok sa sp (second_scratch t1) t2 (same_except_frame _ _ _ _ Pa) T2 G) as (sb & Rb & Vb & Pb).
  exists sb. rewrite (run_straight_seq _ _ _ _ Ra). split; [exact Rb|].
  split; [|split].
  - (* the second load does not overwrite the first operand *)
    rewrite <- A, <- Va. apply (proj1 Pb (AR (operand_reg TEMP t1))); [apply operand_reg_gp; [exact I|exact T1]|].
    intros [E|[]]. apply (second_scratch_neq t1). congruence.
  - rewrite Vb, <- B. apply (proj1 Pa); [exact T2|]. intros [E|[]]; congruence.
  - apply (same_except_incl _ _ _ _ _ (same_except_trans _ _ _ _ _ _ Pa Pb)).
    intros l [<-|[<-|[]]]; [now left|]. destruct (second_scratch_cases t1) as [(-> & _)|(-> & _)]; cbn; auto.
Qed.

(* [f] emits one instruction computing [g] whenever [ok] holds of the operand values *)
Definition simple_op (f : areg -> areg -> areg -> list acode) (g : Z -> Z -> Z) (ok : Z -> Z -> Prop) : Prop :=
  forall s d a b x y, rget s a = Some x -> rget s b = Some y -> ok x y ->
    run_straight im (f d a b) s = MOk (rset s d (Some (g x y))).

Lemma simple_arith3 c f :
  (forall s d a b, step im (c d a b) s = arith3 f s d a b) ->
  simple_op (fun d a b => [c d a b]) (fun x y => wrap (f x y)) (fun _ _ => True).
Proof. intros C s d a b x y A B _. cbn [run_straight]. now rewrite C, (step_arith3 s f d a b x y A B). Qed.
Definition div_defined (x y : Z) : Prop := y <> 0 /\ ~ (x = min_int /\ y = -1).
Lemma div_defined_tests x y : div_defined x y -> (y =? 0) = false /\ ((x =? min_int) && (y =? -1)) = false.
Proof.
  intros (NZ & NO). split; [now apply Z.eqb_neq|].
  destruct (Z.eqb_spec x min_int), (Z.eqb_spec y (-1)); cbn; auto. exfalso; apply NO; auto.
Qed.
Lemma step_SDIV s d ra rb x y :
  rget s ra = Some x -> rget s rb = Some y -> div_defined x y ->
  step im (SDIV d ra rb) s = Next (rset s d (Some (Z.quot x y))).
Proof.
  intros A Bv D. destruct (div_defined_tests x y D) as (Hz & Ho). cbn [step]. unfold need. now rewrite A, Bv, Hz, Ho.
Qed.
Lemma simple_div : simple_op r_div Z.quot div_defined.
Proof. intros s d a b x y A B D. cbn [r_div run_straight]. now rewrite (step_SDIV s d a b x y A B D). Qed.

Definition operand_ok (t : atemp) : Prop := loc_ok t /\ t <> AR TEMP /\ t <> AR TEMP2.

(* What [a_op] needs of the register-level code [f]: run on the registers [a_op] passes to it, with
   the operand values [a] and [b] in them, it leaves [v] in the target register and changes besides
   at most [D].  (The side conditions are those under which [r_rem] works.) *)
Definition reg_op (f : areg -> areg -> areg -> list acode) (D : list atemp) (a b v : Z) : Prop :=
  forall s sp d ra rb, frame_ok s sp -> gp d -> d <> TEMP2 -> ra <> TEMP2 -> (rb = TEMP2 -> ra = TEMP) ->
    rget s ra = Some a -> rget s rb = Some b ->
    exists s', run_straight im (f d ra rb) s = MOk s' /\ rget s' d = Some v /\ same_except (AR d :: D) s s' sp.

Lemma simple_reg_op f g ok a b : simple_op f g ok -> ok a b -> reg_op f [] a b (g a b).
Proof.
  intros Hf OK s sp d ra rb F G _ _ _ A B. rewrite (Hf s d ra rb a b A B OK).
  exists (lset s sp (AR d) (Some (g a b))).
  split; [reflexivity|]. split; [apply rget_rset_same, G|apply same_except_write; assumption].
Qed.

Lemma a_op_shape f t s1 s2 :
  a_op f t s1 s2 =
  (((operand_load TEMP s1 ++ operand_load (second_scratch s1) s2) ++
    f (operand_reg TEMP t) (operand_reg TEMP s1) (operand_reg (second_scratch s1) s2)) ++ result_store t)%list.
Proof.
  destruct t, s1, s2; cbn [a_op operand_load operand_reg second_scratch result_store app];
    rewrite ?app_nil_r; reflexivity.
Qed.

Lemma a_op_ok f D v s sp t s1 s2 a b :
  reg_op f D a b v ->
  frame_ok s sp -> loc_ok t -> t <> AR TEMP2 -> loc_ok s1 -> s1 <> AR TEMP2 -> operand_ok s2 ->
  lget s sp s1 = Some a -> lget s sp s2 = Some b ->
  exists s', run_straight im (a_op f t s1 s2) s = MOk s' /\
             lget s' sp t = Some v /\ same_except (t :: AR TEMP :: AR TEMP2 :: D) s s' sp.
Proof.
  intros Hf F T NT S1 N1 (S2 & N21 & N22) A B.
  destruct (operands_load_ok s sp s1 s2 a b F S1 S2 N21 A B) as (sa & Ra & Va & Vb & Pa).
  destruct (Hf sa sp (operand_reg TEMP t) (operand_reg TEMP s1) (operand_reg (second_scratch s1) s2))
    as (sb & Rb & Vr & Pb); try assumption.
  - apply Pa.
  - apply operand_reg_gp; [exact I|exact T].
  - apply operand_reg_neq; [exact NT|discriminate].
  - apply operand_reg_neq; [exact N1|discriminate].
  - (* only a spilled second operand is in TEMP2, and then because the first occupies TEMP *)
    destruct s2 as [r2|p2]; cbn [operand_reg]; [congruence|].
    destruct (second_scratch_cases s1) as [(_ & E)|(-> & _)]; [auto|discriminate].
  - rewrite <- (run_straight_seq _ _ _ _ Ra) in Rb.
    destruct (result_store_ok _ _ s sb sp t (Some v) T Rb Vr (same_except_trans _ _ _ _ _ _ Pa Pb)) as (sc & Rc & Vc & Pc).
    exists sc. rewrite a_op_shape. split; [exact Rc|]. split; [exact Vc|]. apply (same_except_incl _ _ _ _ _ Pc).
    clear. intros l. cbn [app In]. destruct (operand_reg_cases TEMP t) as [->| ->]; tauto.
Qed.

Theorem a64_simple_op_ok f g ok s sp t s1 s2 a b :
  simple_op f g ok ->
  frame_ok s sp -> operand_ok t -> operand_ok s1 -> operand_ok s2 ->
  lget s sp s1 = Some a -> lget s sp s2 = Some b -> ok a b ->
  exists s', run_straight im (a_op f t s1 s2) s = MOk s' /\
             lget s' sp t = Some (g a b) /\ preserved s s' sp t.
Proof.
  intros Hf F (T & _ & NT) (S1 & _ & N1) S2 A B OK.
  destruct (a_op_ok f [] (g a b) s sp t s1 s2 a b (simple_reg_op f g ok a b Hf OK) F T NT S1 N1 S2 A B)
    as (s' & R & V & P).
  exists s'. split; [exact R|]. split; [exact V|]. apply (same_except_preserved _ _ _ _ _ P), incl_refl.
Qed.

(* rem: SDIV + MSUB through TEMP2, with X10 evacuated when everything is spilled *)
Lemma rem_between a b : b <> 0 -> (0 <= a -> 0 <= Z.rem a b <= a) /\ (a <= 0 -> a <= Z.rem a b <= 0).
Proof.
  intros NZ.
  assert (P : forall a b, 0 <= a -> 0 < b -> 0 <= Z.rem a b <= a).
  { intros a0 b0 Ha Hb. split; [apply Z.rem_nonneg; lia|apply Z.rem_le; lia]. }
  split; intros Ha; destruct (Z_lt_le_dec 0 b) as [Hb|Hb].
  - apply P; auto.
  - specialize (P a (- b) Ha ltac:(lia)). rewrite Z.rem_opp_r in P by lia. lia.
  - specialize (P (- a) b ltac:(lia) Hb). rewrite Z.rem_opp_l in P by lia. lia.
  - specialize (P (- a) (- b) ltac:(lia) ltac:(lia)). rewrite Z.rem_opp_r, Z.rem_opp_l in P by lia. lia.
Qed.
Lemma msub_rem a b : in64 a -> b <> 0 -> wrap (a - Z.quot a b * b) = Z.rem a b.
Proof.
  intros H NZ. pose proof (Z.quot_rem' a b) as E. pose proof (rem_between a b NZ) as L.
  replace (a - Z.quot a b * b) with (Z.rem a b) by lia.
  clear E. set (r := Z.rem a b) in *. clearbody r.
  assert (R : - two63 <= r < two63) by (unfold in64, two63 in *; lia).
  clear L H. unfold wrap, two63, two64 in *. Z.div_mod_to_equations. lia.
Qed.

Lemma step_MSUB s d ra rb rc x y z :
  rget s ra = Some x -> rget s rb = Some y -> rget s rc = Some z ->
  step im (MSUB d ra rb rc) s = Next (rset s d (Some (wrap (z - x * y)))).
Proof. intros A Bv C. cbn [step]. unfold need. now rewrite A, Bv, C. Qed.

(* SDIV q, ra, rb; MSUB d, q, rb, ra: the quotient goes to [q], which is [d] or TEMP2 *)
Lemma sdiv_msub D s sp q d ra rb a b :
  frame_ok s sp -> gp q -> gp d -> q <> ra -> q <> rb -> incl [AR d; AR q] D ->
  rget s ra = Some a -> rget s rb = Some b -> in64 a -> div_defined a b ->
  exists s', run_straight im [SDIV q ra rb; MSUB d q rb ra] s = MOk s' /\ rget s' d = Some (Z.rem a b) /\
             same_except D s s' sp.
Proof.
  intros F Gq Gd Na Nb I A B IA Dd. cbn [run_straight]. rewrite (step_SDIV s q ra rb a b A B Dd).
  rewrite (step_MSUB _ d q rb ra (Z.quot a b) b a);
    [|apply rget_rset_same, Gq|rewrite rget_rset_other by exact Nb; exact B|rewrite rget_rset_other by exact Na; exact A].
  rewrite msub_rem by (auto; apply Dd).
  exists (lset (lset s sp (AR q) (Some (Z.quot a b))) sp (AR d) (Some (Z.rem a b))).
  split; [reflexivity|]. split; [apply rget_rset_same, Gd|].
  apply (same_except_incl [AR d; AR q]); [|exact I].
  apply same_except_lset; [apply same_except_write; assumption|exact Gd].
Qed.

Lemma r_rem_reg_op a b : in64 a -> div_defined a b -> reg_op r_rem [AR TEMP2; AS SPILL_TEMP] a b (Z.rem a b).
Proof.
  intros IA D s sp d ra rb F G ND NA NB A B. unfold r_rem.
  destruct (areg_eqb_spec rb TEMP2) as [->|Nb]; [rewrite (NB eq_refl) in *; destruct (areg_eqb_spec d TEMP) as [->|Nd]|].
  - (* target and first operand in TEMP, second in TEMP2: X10 is evacuated to the scratch slot, takes the
       second operand, and is restored *)
    assert (P0 : slot_ok SPILL_TEMP) by reflexivity.
    pose (s1 := lset s sp (AS SPILL_TEMP) (rget s TEMPORARY_TEMP)).
    pose (s2 := lset s1 sp (AR TEMPORARY_TEMP) (rget s1 TEMP2)).
    assert (P2 : same_except [AR TEMPORARY_TEMP; AS SPILL_TEMP] s s2 sp)
      by (apply same_except_lset; [apply same_except_write; assumption|exact I]).
    destruct (sdiv_msub [AR TEMP; AR TEMP2] s2 sp TEMP2 TEMP TEMP TEMPORARY_TEMP a b) as (s3 & R3 & V3 & P3);
      try (exact I || discriminate || assumption || apply incl_refl).
    { rewrite <- A. apply (proj1 P2 (AR TEMP)); [exact I|]. intros [E|[E|[]]]; discriminate. }
    { rewrite <- B. apply (rget_rset_same s1); exact I. }
    exists (lset s3 sp (AR TEMPORARY_TEMP) (sget s3 sp SPILL_TEMP)). split; [|split].
    + rewrite (run_straight_cons _ _ s s1) by (apply (step_STR_slot im s sp F), P0).
      rewrite (run_straight_cons _ _ s1 s2) by apply step_MOVR.
      etransitivity; [exact (run_straight_seq _ [LDR TEMPORARY_TEMP SP (stack_offset SPILL_TEMP)] s2 s3 R3)|].
      cbn [run_straight]. now rewrite (step_LDR_slot im s3 sp) by (apply P3 || exact P0).
    + rewrite <- V3. apply rget_rset_other; discriminate.
    + apply (same_except_restore (AR TEMPORARY_TEMP)).
      * eapply same_except_incl; [apply same_except_lset; [exact (same_except_trans _ _ _ _ _ _ P2 P3)|exact I]|].
        clear. intros l; cbn [app In]; tauto.
      * rewrite lget_lset_same by exact I. transitivity (lget s2 sp (AS SPILL_TEMP)); [|apply sget_sset_same].
        apply (proj1 P3 (AS SPILL_TEMP)); [exact P0|]. intros [E|[E|[]]]; discriminate.
  - apply (sdiv_msub _ s sp d d TEMP TEMP2 a b); auto; try exact I. clear. intros l; cbn [In]; tauto.
  - apply (sdiv_msub _ s sp TEMP2 d ra rb a b); auto; try exact I. clear. intros l; cbn [In]; tauto.
Qed.

Definition preserved_rem (s s' : astate) (sp : Z) (t : atemp) : Prop :=
  (forall l, loc_ok l -> l <> t -> l <> AR TEMP -> l <> AR TEMP2 -> l <> AS SPILL_TEMP -> lget s' sp l = lget s sp l) /\
  heap s' = heap s /\ out s' = out s /\ flags s' = flags s /\ frame_ok s' sp.
Lemma preserved_preserved_rem s s' sp t : preserved s s' sp t -> preserved_rem s s' sp t.
Proof. intros (L & R). split; [|exact R]. intros; apply L; auto. Qed.

Definition rem_operand_ok (t : atemp) : Prop := operand_ok t /\ t <> AS SPILL_TEMP.

Theorem a64_rem_ok s sp t s1 s2 a b :
  frame_ok s sp -> rem_operand_ok t -> rem_operand_ok s1 -> rem_operand_ok s2 ->
  lget s sp s1 = Some a -> lget s sp s2 = Some b -> in64 a -> div_defined a b ->
  exists s', run_straight im (a_op r_rem t s1 s2) s = MOk s' /\
             lget s' sp t = Some (Z.rem a b) /\ preserved_rem s s' sp t.
Proof.
  intros F ((T & _ & NT) & _) ((S1 & _ & N1) & _) (S2 & _) A B IA D.
  destruct (a_op_ok r_rem _ (Z.rem a b) s sp t s1 s2 a b (r_rem_reg_op a b IA D) F T NT S1 N1 S2 A B)
    as (s' & R & V & (L & P)).
  exists s'. split; [exact R|]. split; [exact V|]. split; [|exact P].
  intros l Ll M1 M2 M3 M4. apply L; [exact Ll|]. intros [E|[E|[E|[E|[E|[]]]]]]; congruence.
Qed.

(* all five operators at once, against the AxCut meaning eval_op *)
Theorem a64_arith_ok o s sp t s1 s2 a b v :
  frame_ok s sp -> rem_operand_ok t -> rem_operand_ok s1 -> rem_operand_ok s2 ->
  lget s sp s1 = Some a -> lget s sp s2 = Some b -> in64 a -> eval_op o a b = OpVal v ->
  exists s', run_straight im (a_arith o t s1 s2) s = MOk s' /\
             lget s' sp t = Some v /\ preserved_rem s s' sp t.
Proof.
  intros F T S1 S2 A Bv IA E.
  assert (W : forall f g ok, simple_op f g ok -> ok a b ->
              exists s', run_straight im (a_op f t s1 s2) s = MOk s' /\
                         lget s' sp t = Some (g a b) /\ preserved_rem s s' sp t).
  { intros f g ok Hs Hok.
    destruct (a64_simple_op_ok f g ok s sp t s1 s2 a b Hs F (proj1 T) (proj1 S1) (proj1 S2) A Bv Hok)
      as (s' & R & V & P).
    exists s'. auto using preserved_preserved_rem. }
  assert (Dd : (b =? 0) = false -> (a =? min_int) && (b =? -1) = false -> div_defined a b).
  { intros NZ O. split; [now apply Z.eqb_neq|]. intros (-> & ->). discriminate. }
  destruct o; cbn [a_arith eval_op] in *.
  - (* Div *)
    destruct (b =? 0) eqn:NZ; [discriminate|].
    destruct ((a =? min_int) && (b =? -1)) eqn:O; [discriminate|]. injection E as <-.
    apply (W r_div Z.quot div_defined simple_div); auto.
  - injection E as <-. apply (W r_mul _ _ (simple_arith3 MUL Z.mul (fun _ _ _ _ => eq_refl)) I).
  - destruct (b =? 0) eqn:NZ; [discriminate|].
    destruct ((a =? min_int) && (b =? -1)) eqn:O; [discriminate|]. injection E as <-.
    apply a64_rem_ok; auto.
  - injection E as <-. apply (W r_add _ _ (simple_arith3 ADD Z.add (fun _ _ _ _ => eq_refl)) I).
  - injection E as <-. apply (W r_sub _ _ (simple_arith3 SUB Z.sub (fun _ _ _ _ => eq_refl)) I).
Qed.

(* [a_mov] writes the target, and TEMP2 when both sides are spill slots; in particular TEMP is kept *)
Lemma a_mov_ok s sp t src :
  frame_ok s sp -> loc_ok t -> loc_ok src ->
  exists s', run_straight im (a_mov t src) s = MOk s' /\
             lget s' sp t = lget s sp src /\ same_except [t; AR TEMP2] s s' sp.
Proof.
  intros F T S. unfold a_mov. destruct src as [sr|sq]; [|destruct t as [tr|tq]].
  - rewrite (move_from_register_ok s sp t sr F T).
    eexists; split; [reflexivity|]. split; [apply lget_lset_same, T|].
    apply same_except_lset; [apply same_except_refl, F|exact T].
  - rewrite (move_to_register_ok s sp tr (AS sq) F S).
    exists (lset s sp (AR tr) (lget s sp (AS sq))). split; [reflexivity|]. split; [apply lget_lset_same, T|].
    apply same_except_lset; [apply same_except_refl, F|exact T].
  - rewrite run_straight_app, (move_to_register_ok s sp TEMP2 (AS sq) F S).
    rewrite (move_from_register_ok _ sp (AS tq) TEMP2) by assumption.
    exists (lset (lset s sp (AR TEMP2) (lget s sp (AS sq))) sp (AS tq) (rget (rset s TEMP2 (lget s sp (AS sq))) TEMP2)).
    split; [reflexivity|]. split; [rewrite lget_lset_same by exact T; apply rget_rset_same; exact I|].
    apply same_except_lset; [apply same_except_write; [exact F|exact I]|exact T].
Qed.
Theorem a64_mov_ok s sp t src :
  frame_ok s sp -> operand_ok t -> operand_ok src ->
  exists s', run_straight im (a_mov t src) s = MOk s' /\
             lget s' sp t = lget s sp src /\ preserved s s' sp t.
Proof.
  intros F (T & _) (S & _). destruct (a_mov_ok s sp t src F T S) as (s' & R & V & P).
  exists s'. split; [exact R|]. split; [exact V|]. apply (same_except_preserved _ _ _ _ _ P).
  clear. intros l; cbn [In]; tauto.
Qed.

Lemma only_reg_same_except n s s' sp : frame_ok s sp -> only_reg n s s' -> same_except [AR (X n)] s s' sp.
Proof.
  intros (Fs & SP) (O & Hsp & Hh & Hst & Hf & Ho & _).
  split; [|split; [exact Hh|split; [exact Ho|split; [exact Hf|split; [congruence|exact SP]]]]].
  intros l L N. destruct l as [[m| |]|q]; cbn [loc_ok gp lget rget] in *; try contradiction.
  - apply O. intros ->. apply N. now left.
  - unfold sget. now rewrite Hst.
Qed.
Lemma imm_code_reg_ok s sp r v :
  frame_ok s sp -> gp r -> in64 v ->
  exists s', run_straight im (imm_code r v) s = MOk s' /\ rget s' r = Some v /\ same_except [AR r] s s' sp.
Proof.
  intros F G IV. destruct r as [n| |]; try contradiction.
  destruct (a64_imm_code_ok im n v s IV) as (s' & R & V & O).
  exists s'. auto using only_reg_same_except.
Qed.

Theorem a64_load_immediate_ok s sp t v :
  frame_ok s sp -> operand_ok t -> in64 v ->
  exists s', run_straight im (a_load_immediate t v) s = MOk s' /\
             lget s' sp t = Some v /\ preserved s s' sp t.
Proof.
  intros F (T & _) IV.
  destruct (imm_code_reg_ok s sp (operand_reg TEMP t) v F (operand_reg_gp TEMP t I T) IV) as (s1 & R1 & V1 & P1).
  replace (a_load_immediate t v) with (imm_code (operand_reg TEMP t) v ++ result_store t)%list
    by (destruct t; [apply app_nil_r|reflexivity]).
  exact (to_target_ok _ s s1 sp t (Some v) T R1 V1 P1).
Qed.

(* The NZCV flags SUBS computes decide the six conditions exactly like the signed comparison:
   Z says that the operands are equal, and N differs from V exactly when the first is the smaller. *)
Lemma wrap_sub a b :
  in64 a -> in64 b ->
  wrap (a - b) = a - b /\ in64 (a - b) \/
  wrap (a - b) = a - b - two64 /\ two63 <= a - b \/
  wrap (a - b) = a - b + two64 /\ a - b < - two63.
Proof. unfold in64, wrap, two63, two64. intros Ha Hb. Z.div_mod_to_equations. lia. Qed.
Lemma cmp_flags_Z a b : in64 a -> in64 b -> fZ (cmp_flags a b) = (a =? b).
Proof.
  intros Ha Hb. pose proof (wrap_sub a b Ha Hb) as R. cbn [cmp_flags fZ].
  destruct (Z.eqb_spec (wrap (a - b)) 0), (Z.eqb_spec a b); try reflexivity;
    exfalso; unfold in64, two63, two64 in *; lia.
Qed.
Lemma cmp_flags_NV a b : in64 a -> in64 b -> Bool.eqb (fN (cmp_flags a b)) (fV (cmp_flags a b)) = (b <=? a).
Proof.
  intros Ha Hb. pose proof (wrap_sub a b Ha Hb) as R. cbn [cmp_flags fN fV].
  destruct (Z.ltb_spec (wrap (a - b)) 0), (Z.eqb_spec (a - b) (wrap (a - b))), (Z.leb_spec b a); try reflexivity;
    exfalso; unfold in64, two63, two64 in *; lia.
Qed.
Lemma cond_holds_cmp sort a b : in64 a -> in64 b -> cond_holds sort (cmp_flags a b) = eval_cmp sort a b.
Proof.
  intros Ha Hb.
  destruct sort; cbn [cond_holds eval_cmp]; rewrite ?cmp_flags_Z, ?cmp_flags_NV by assumption; try reflexivity.
  - symmetry; apply Z.ltb_antisym.
  - destruct (Z.eqb_spec a b), (Z.leb_spec b a), (Z.leb_spec a b); try reflexivity; lia.
  - destruct (Z.eqb_spec a b), (Z.leb_spec b a), (Z.ltb_spec b a); try reflexivity; lia.
Qed.

Definition flags_preserving (s s' : astate) (sp : Z) : Prop :=
  (forall l, loc_ok l -> l <> AR TEMP -> l <> AR TEMP2 -> lget s' sp l = lget s sp l) /\
  heap s' = heap s /\ out s' = out s /\ frame_ok s' sp.
Lemma same_except_set_flags D s s' sp f :
  same_except D s s' sp -> incl D [AR TEMP; AR TEMP2] -> flags_preserving s (set_flags s' f) sp.
Proof.
  intros (L & H & O & _ & F) I. split; [|auto using frame_ok_set_flags].
  intros l Ll N1 N2. rewrite lget_set_flags. apply L; [exact Ll|]. intros J.
  destruct (I l J) as [E|[E|[]]]; congruence.
Qed.

Theorem a64_compare_ok s sp t1 t2 a b :
  frame_ok s sp -> operand_ok t1 -> operand_ok t2 ->
  lget s sp t1 = Some a -> lget s sp t2 = Some b ->
  exists s', run_straight im (compare t1 t2) s = MOk s' /\ flags s' = Some (cmp_flags a b) /\
             flags_preserving s s' sp.
Proof.
  intros F (T1 & N1 & _) (T2 & N2 & _) A B.
  destruct (operands_load_ok s sp t1 t2 a b F T1 T2 N2 A B) as (s1 & R & Va & Vb & P).
  replace (compare t1 t2) with
    ((operand_load TEMP t1 ++ operand_load (second_scratch t1) t2) ++
     [CMPR (operand_reg TEMP t1) (operand_reg (second_scratch t1) t2)])%list
    by (destruct t1, t2; cbn [second_scratch]; rewrite ?scratch_for_other by congruence; reflexivity).
  rewrite (run_straight_seq _ _ _ _ R). cbn [run_straight step]. unfold need. rewrite Va, Vb.
  eexists; split; [reflexivity|]. split; [reflexivity|]. apply (same_except_set_flags _ _ _ _ _ P), incl_refl.
Qed.
Theorem a64_compare_zero_ok s sp t a :
  frame_ok s sp -> operand_ok t -> lget s sp t = Some a ->
  exists s', run_straight im (compare_immediate t 0) s = MOk s' /\ flags s' = Some (cmp_flags a 0) /\
             flags_preserving s s' sp.
Proof.
  intros F (T & _) A. destruct (operand_load_ok s sp TEMP t F T I) as (s1 & R & V & P).
  replace (compare_immediate t 0) with (operand_load TEMP t ++ [CMPI (operand_reg TEMP t) 0])%list by (now destruct t).
  rewrite (run_straight_seq _ _ _ _ R). cbn [run_straight step]. unfold need. rewrite V, A.
  eexists; split; [reflexivity|]. split; [reflexivity|]. apply (same_except_set_flags _ _ _ _ _ P).
  intros l [<-|[]]; now left.
Qed.
(* the conditional branch is taken exactly when the AxCut comparison holds (all six sorts) *)
Theorem a64_bcc_step sort l s a b :
  flags s = Some (cmp_flags a b) -> in64 a -> in64 b ->
  step im (bcc sort l) s = if eval_cmp sort a b then goto_label im s l else Next s.
Proof.
  intros H Ha Hb. rewrite <- (cond_holds_cmp sort a b Ha Hb).
  destruct sort; cbn [bcc step]; unfold cond_jump; now rewrite H.
Qed.

Lemma step_ADR s r l addr : label_addr im l = Some addr -> step im (ADR r l) s = Next (rset s r (Some addr)).
Proof. intros LA. cbn [step]. now rewrite LA. Qed.
Theorem a64_load_label_ok s sp t l addr :
  frame_ok s sp -> operand_ok t -> label_addr im l = Some addr ->
  exists s', run_straight im (a_load_label t l) s = MOk s' /\ lget s' sp t = Some addr /\ preserved s s' sp t.
Proof.
  intros F (T & _) LA. pose proof (operand_reg_gp TEMP t I T) as G.
  replace (a_load_label t l) with ([ADR (operand_reg TEMP t) l] ++ result_store t)%list by (now destruct t).
  apply (to_target_ok _ s (lset s sp (AR (operand_reg TEMP t)) (Some addr))).
  - exact T.
  - cbn [run_straight]. now rewrite (step_ADR _ _ _ _ LA).
  - apply rget_rset_same, G.
  - apply same_except_write; assumption.
Qed.
(* jump to the address held by a temporary *)
Theorem a64_jump_ok s sp t addr :
  frame_ok s sp -> operand_ok t -> lget s sp t = Some addr ->
  exists s', run_straight im (removelast (a_jump t)) s = MOk s' /\
             step im (last (a_jump t) RET) s' = goto_addr im s' addr /\
             (forall l, loc_ok l -> l <> AR TEMP -> lget s' sp l = lget s sp l) /\ heap s' = heap s /\ out s' = out s.
Proof.
  intros F (T & _) A. destruct (operand_load_ok s sp TEMP t F T I) as (s' & R & V & (L & H & O & _)).
  exists s'. replace (removelast (a_jump t)) with (operand_load TEMP t) by (now destruct t).
  replace (last (a_jump t) RET) with (BR (operand_reg TEMP t)) by (now destruct t).
  split; [exact R|]. cbn [step]. unfold need. rewrite V, A. split; [reflexivity|]. split; [|auto].
  intros l Ll N. apply L; [exact Ll|]. intros [E|[]]; congruence.
Qed.
(* invoke: add the tag offset to the code pointer and branch there.  The offset is an ADD immediate when it has
   12 bits, else it is synthesised in TEMP2 (repair of the finding "tag dispatch immediate"): [a64_add_offset_ok] *)
Theorem a64_add_offset_ok s n i a :
  gp (X n) -> n <> 3%N -> xget s n = Some a -> (add_imm_fits i = false -> in64 i) ->
  exists s', run_straight im (add_offset (X n) i) s = MOk s' /\ xget s' n = Some (wrap (a + i)) /\
             (forall m, m <> n -> m <> 3%N -> xget s' m = xget s m) /\
             spv s' = spv s /\ heap s' = heap s /\ stack s' = stack s /\ out s' = out s.
Proof.
  intros G N3 A IV. unfold add_offset. destruct (add_imm_fits i) eqn:FI.
  - cbn [run_straight step]. unfold arith_imm, need. cbn [rget]. rewrite A.
    eexists; split; [reflexivity|]. cbn [rset]. split; [apply xget_xset_same|].
    split; [intros m Hm _; apply xget_xset_other; congruence|repeat split].
  - destruct (a64_imm_code_ok im 3 i s (IV eq_refl)) as (s1 & R & V & (O & Hsp & Hh & Hst & Hf & Ho & _)).
    consts. rewrite run_straight_app, R. cbn [run_straight step]. unfold arith3, need. cbn [rget].
    rewrite (O n N3), A, V.
    eexists; split; [reflexivity|]. cbn [rset]. split; [apply xget_xset_same|].
    split; [intros m Hm H3; rewrite xget_xset_other by congruence; apply O; exact H3|].
    repeat split; assumption.
Qed.
Theorem a64_add_and_jump_ok s sp t i addr :
  frame_ok s sp -> operand_ok t -> lget s sp t = Some addr -> (add_imm_fits i = false -> in64 i) ->
  exists s', run_straight im (removelast (a_add_and_jump t i)) s = MOk s' /\
             step im (last (a_add_and_jump t i) RET) s' = goto_addr im s' (wrap (addr + i)) /\
             heap s' = heap s /\ out s' = out s.
Proof.
  intros F (T & _ & N2) A IV. destruct (operand_load_ok s sp TEMP t F T I) as (s1 & R1 & V1 & (_ & H1 & O1 & _)).
  replace (a_add_and_jump t i) with
    ((operand_load TEMP t ++ add_offset (operand_reg TEMP t) i) ++ [BR (operand_reg TEMP t)])%list by (now destruct t).
  rewrite removelast_last, last_last, (run_straight_seq _ _ _ _ R1).
  pose proof (operand_reg_gp TEMP t I T) as G. rewrite A in V1.
  assert (N3 : operand_reg TEMP t <> TEMP2) by (apply operand_reg_neq; [exact N2|discriminate]).
  destruct (operand_reg TEMP t) as [n| |]; try contradiction.
  destruct (a64_add_offset_ok s1 n i addr G (fun E => N3 (f_equal X E)) V1 IV) as (s' & R & V & _ & _ & Hh & _ & Ho).
  exists s'. split; [exact R|]. cbn [step]. unfold need. cbn [rget]. rewrite V.
  split; [reflexivity|]. split; congruence.
Qed.
(* switch: ADR TEMP, table; ADD TEMP, TEMP, tag; BR TEMP - also when the tag is spilled (the case
   repaired by 3781c3f: the tag must not be loaded into TEMP) *)
Theorem a64_switch_dispatch_ok s sp tag l base off :
  frame_ok s sp -> operand_ok tag -> label_addr im l = Some base -> lget s sp tag = Some off ->
  exists s', run_straight im (a_load_label (AR TEMP) l ++ a_arith Sum (AR TEMP) (AR TEMP) tag) s = MOk s' /\
             step im (BR TEMP) s' = goto_addr im s' (wrap (base + off)) /\
             (forall l, loc_ok l -> l <> AR TEMP -> l <> AR TEMP2 -> lget s' sp l = lget s sp l) /\
             heap s' = heap s /\ out s' = out s.
Proof.
  intros F TG LA A. pose proof TG as (T & N1 & _).
  pose proof (same_except_write s sp (AR TEMP) (Some base) F I) as P1.
  destruct (a_op_ok r_add [] (wrap (base + off)) (lset s sp (AR TEMP) (Some base)) sp (AR TEMP) (AR TEMP) tag base off)
    as (s' & R & V & P2); try (exact I || discriminate || assumption).
  - exact (simple_reg_op r_add _ _ base off (simple_arith3 ADD Z.add (fun _ _ _ _ => eq_refl)) I).
  - apply rget_rset_same; exact I.
  - rewrite <- A. apply P1; [exact T|]. intros [E|[]]; congruence.
  - exists s'. cbn [a_load_label a_arith app run_straight]. rewrite (step_ADR _ _ _ _ LA).
    split; [exact R|]. cbn [step]. unfold need. cbn [lget] in V. rewrite V. split; [reflexivity|].
    destruct (same_except_trans _ _ _ _ _ _ P1 P2) as (L & H & O & _).
    split; [|auto]. intros l0 Ll M1 M2. apply L; [exact Ll|]. cbn [app In]. intros [E|[E|[E|[E|[]]]]]; congruence.
Qed.
End Sel.
