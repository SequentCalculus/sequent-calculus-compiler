(* C15, symbol-table construction: after a successful build_symbol_table the three template tables and the table of definitions
   are exactly the declaration lists of the program (in order, without duplicate keys), so a lookup
   in a table is the corresponding lookup of the declarative specification (find_type, find_xtor,
   find_def); and the uniqueness conditions [names_ok] and the type-parameter conditions of
   [tdecl_ok] hold.  Nothing here assumes the monomorphic fragment. *)
From Coq Require Import List ZArith String Bool Permutation Lia.
From SCC Require Import Base.Sexp Lang.SynUtil Lang.FunSyn Model.Check Sem.FunTyping Proof.CheckAnn Proof.TypingReject.
Import ListNotations.
Open Scope list_scope.

Lemma aget_app : forall {V} (a b : amap V) k,
  aget (a ++ b) k = match aget a k with Some v => Some v | None => aget b k end.
Proof.
  induction a as [|[k' v] r IH]; intros b k; simpl; [reflexivity|].
  destruct (String.eqb k' k); [reflexivity|apply IH].
Qed.
Lemma aget_In : forall {V} (m : amap V) k v, aget m k = Some v -> In (k, v) m.
Proof.
  induction m as [|[k' v'] r IH]; simpl; intros k v H; [discriminate|].
  destruct (String.eqb k' k) eqn:E.
  - apply String.eqb_eq in E. inversion H; subst. left; reflexivity.
  - right. auto.
Qed.
Lemma aget_none_notin : forall {V} (m : amap V) k, aget m k = None -> ~ In k (map fst m).
Proof.
  induction m as [|[k' v'] r IH]; simpl; intros k H; [tauto|].
  destruct (String.eqb k' k) eqn:E; [discriminate|].
  apply String.eqb_neq in E. intros [Hk|Hk]; [congruence|]. eapply IH; eauto.
Qed.
Lemma ainsert_fresh : forall {V} (m : amap V) k v, aget m k = None -> ainsert m k v = m ++ [(k, v)].
Proof.
  induction m as [|[k' v'] r IH]; simpl; intros k v H; [reflexivity|].
  destruct (String.eqb k' k); [discriminate|]. rewrite IH by assumption. reflexivity.
Qed.
Lemma aget_ainsert : forall {V} (m : amap V) k v k',
  aget (ainsert m k v) k' = if String.eqb k k' then Some v else aget m k'.
Proof.
  induction m as [|[k0 v0] r IH]; simpl; intros k v k'.
  - destruct (String.eqb k k'); reflexivity.
  - destruct (String.eqb k0 k) eqn:E0; simpl.
    + apply String.eqb_eq in E0. subst k0. destruct (String.eqb k k'); reflexivity.
    + destruct (String.eqb k0 k') eqn:E1.
      * apply String.eqb_eq in E1. subst k0. rewrite String.eqb_sym in E0. rewrite E0. reflexivity.
      * apply IH.
Qed.
Lemma ahas_false : forall {V} (m : amap V) k, ahas m k = false -> aget m k = None.
Proof. intros V m k H. unfold ahas in H. destruct (aget m k); [discriminate|reflexivity]. Qed.
Lemma ahas_true : forall {V} (m : amap V) k, ahas m k = true -> exists v, aget m k = Some v.
Proof. intros V m k H. unfold ahas in H. destruct (aget m k); [eauto|discriminate]. Qed.

Lemma aget_map_find : forall {X V} (key : X -> fname) (val : X -> V) (l : list X) k,
  aget (map (fun x => (key x, val x)) l) k = option_map val (find (fun x => String.eqb (key x) k) l).
Proof.
  induction l as [|x r IH]; intros k; simpl; [reflexivity|].
  destruct (String.eqb (key x) k); [reflexivity|apply IH].
Qed.

Lemma NoDup_nodup : forall l, NoDup l -> nodup l = true.
Proof.
  induction 1 as [|x l Hn _ IH]; simpl; [reflexivity|].
  rewrite IH, andb_true_r. destruct (mem x l) eqn:E; [|reflexivity].
  apply (mem_In) in E. contradiction.
Qed.

Lemma NoDup_app_snoc : forall {X} (l : list X) x, NoDup l -> ~ In x l -> NoDup (l ++ [x]).
Proof.
  intros X l x Hn Hx. apply NoDup_rev in Hn. rewrite <- (rev_involutive (l ++ [x])).
  apply NoDup_rev. rewrite rev_app_distr. simpl. constructor; [|assumption].
  intro H. apply Hx. apply in_rev. assumption.
Qed.

Definition tt_of_decl (d : fdecl) : amap (fpol * fnamectx * list fname) :=
  match d with
  | FDData d => [(fdaname d, (FData, fdaparams d, map fctname (fdactors d)))]
  | FDCodata d => [(fcoaname d, (FCodata, fcoparams d, map fdtname (fcodtors d)))]
  | FDDef _ => []
  end.
Definition ct_of_decl (d : fdecl) : amap fctx :=
  match d with FDData d => map (fun c => (fctname c, fctargs c)) (fdactors d) | _ => [] end.
Definition dt_of_decl (d : fdecl) : amap (fctx * fty) :=
  match d with FDCodata d => map (fun c => (fdtname c, (fdtargs c, fdtcont c))) (fcodtors d) | _ => [] end.
Definition df_of_decl (d : fdecl) : amap (fctx * fty) :=
  match d with FDDef d => [(fdname d, (fdctx d, fdret d))] | _ => [] end.

Lemma build_ctors_spec : forall cs st st',
  build_ctors cs st = COk st' ->
  st' = set_ctor_templates st (st_ctor_templates st ++ map (fun c => (fctname c, fctargs c)) cs)
  /\ (NoDup (map fst (st_ctor_templates st)) -> NoDup (map fst (st_ctor_templates st'))).
Proof.
  induction cs as [|c r IH]; intros st st' H; simpl in H.
  - inversion H as [Heq]. subst st'. split; [destruct st; unfold set_ctor_templates, set_dtor_templates; simpl; rewrite app_nil_r; reflexivity|auto].
  - destruct (ahas (st_ctor_templates st) (fctname c)) eqn:E; [discriminate|].
    apply ahas_false in E. apply IH in H. destruct H as [-> Hnd]. simpl in *.
    rewrite ainsert_fresh in * by assumption. split.
    + unfold set_ctor_templates; simpl. rewrite <- app_assoc. reflexivity.
    + intros Hn. apply Hnd. rewrite map_app. simpl.
      apply NoDup_app_snoc; [assumption|]. apply aget_none_notin. assumption.
Qed.

Lemma build_dtors_spec : forall cs st st',
  build_dtors cs st = COk st' ->
  st' = set_dtor_templates st (st_dtor_templates st ++ map (fun c => (fdtname c, (fdtargs c, fdtcont c))) cs)
  /\ (NoDup (map fst (st_dtor_templates st)) -> NoDup (map fst (st_dtor_templates st'))).
Proof.
  induction cs as [|c r IH]; intros st st' H; simpl in H.
  - inversion H as [Heq]. subst st'. split; [destruct st; unfold set_ctor_templates, set_dtor_templates; simpl; rewrite app_nil_r; reflexivity|auto].
  - destruct (ahas (st_dtor_templates st) (fdtname c)) eqn:E; [discriminate|].
    apply ahas_false in E. apply IH in H. destruct H as [-> Hnd]. simpl in *.
    rewrite ainsert_fresh in * by assumption. split.
    + unfold set_dtor_templates; simpl. rewrite <- app_assoc. reflexivity.
    + intros Hn. apply Hnd. rewrite map_app. simpl.
      apply NoDup_app_snoc; [assumption|]. apply aget_none_notin. assumption.
Qed.

(* the state of the tables relative to a list of declarations already processed *)
Record built (ds : list fdecl) (st : symtab) : Prop := {
  b_tt : st_type_templates st = flat_map tt_of_decl ds;
  b_ct : st_ctor_templates st = flat_map ct_of_decl ds;
  b_dt : st_dtor_templates st = flat_map dt_of_decl ds;
  b_df : st_defs st = flat_map df_of_decl ds;
  b_types : st_types st = [];
  b_ctors : st_ctors st = [];
  b_dtors : st_dtors st = [];
  b_nd_tt : NoDup (map fst (st_type_templates st));
  b_nd_ct : NoDup (map fst (st_ctor_templates st));
  b_nd_dt : NoDup (map fst (st_dtor_templates st));
  b_nd_df : NoDup (map fst (st_defs st))
}.

Lemma built_empty : built [] st_empty.
Proof. constructor; simpl; try reflexivity; constructor. Qed.

Lemma build_decl_spec : forall pre d st st',
  built pre st -> build_decl d st = COk st' -> built (pre ++ [d]) st'.
Proof.
  intros pre d st st' B H. destruct B.
  destruct d as [d|d|d]; simpl in H.
  - destruct (ahas (st_type_templates st) (fdaname d)) eqn:E; [discriminate|]. apply ahas_false in E.
    apply build_ctors_spec in H. destruct H as [-> Hnd]. simpl in *.
    rewrite ainsert_fresh by assumption.
    constructor; simpl; rewrite ?flat_map_app; simpl; rewrite ?app_nil_r; try congruence.
    + rewrite map_app. simpl. apply NoDup_app_snoc; [assumption|]. apply aget_none_notin; assumption.
    + auto.
  - destruct (ahas (st_type_templates st) (fcoaname d)) eqn:E; [discriminate|]. apply ahas_false in E.
    apply build_dtors_spec in H. destruct H as [-> Hnd]. simpl in *.
    rewrite ainsert_fresh by assumption.
    constructor; simpl; rewrite ?flat_map_app; simpl; rewrite ?app_nil_r; try congruence.
    + rewrite map_app. simpl. apply NoDup_app_snoc; [assumption|]. apply aget_none_notin; assumption.
    + auto.
  - destruct (ahas (st_defs st) (fdname d)) eqn:E; [discriminate|]. apply ahas_false in E.
    inv_ok. simpl in *. rewrite ainsert_fresh by assumption.
    constructor; simpl; rewrite ?flat_map_app; simpl; rewrite ?app_nil_r; try congruence.
    rewrite map_app. simpl. apply NoDup_app_snoc; [assumption|]. apply aget_none_notin; assumption.
Qed.

Lemma build_decls_spec : forall ds pre st st',
  built pre st -> build_decls ds st = COk st' -> built (pre ++ ds) st'.
Proof.
  induction ds as [|d r IH]; intros pre st st' B H; simpl in H.
  - inv_ok. rewrite app_nil_r. assumption.
  - inv_ok. replace (pre ++ d :: r) with ((pre ++ [d]) ++ r) by (rewrite <- app_assoc; reflexivity).
    eapply IH; [|eassumption]. eapply build_decl_spec; eassumption.
Qed.

Definition tt_val (td : tdecl) : fpol * fnamectx * list fname := (td_pol td, td_params td, map xs_name (td_xtors td)).

Lemma aget_tt : forall ds n,
  aget (flat_map tt_of_decl ds) n = option_map tt_val (find_type (tdecls ds) n).
Proof.
  induction ds as [|d r IH]; intros n; simpl; [reflexivity|].
  destruct d as [d|d|d]; simpl; try apply IH; unfold find_type; simpl;
    (destruct (String.eqb _ n) eqn:E; [unfold tt_val; simpl; rewrite map_map; reflexivity|apply IH]).
Qed.

Lemma find_xsig_data : forall d c,
  find_xsig (mktdecl (fdaname d) FData (fdaparams d) (map (fun c => mkxsig (fctname c) (fctargs c) None) (fdactors d))) c
  = option_map (fun k => mkxsig (fctname k) (fctargs k) None) (find (fun k => String.eqb (fctname k) c) (fdactors d)).
Proof.
  intros d c. unfold find_xsig. simpl. induction (fdactors d) as [|k r IH]; simpl; [reflexivity|].
  destruct (String.eqb (fctname k) c); [reflexivity|apply IH].
Qed.
Lemma find_xsig_codata : forall d c,
  find_xsig (mktdecl (fcoaname d) FCodata (fcoparams d) (map (fun c => mkxsig (fdtname c) (fdtargs c) (Some (fdtcont c))) (fcodtors d))) c
  = option_map (fun k => mkxsig (fdtname k) (fdtargs k) (Some (fdtcont k))) (find (fun k => String.eqb (fdtname k) c) (fcodtors d)).
Proof.
  intros d c. unfold find_xsig. simpl. induction (fcodtors d) as [|k r IH]; simpl; [reflexivity|].
  destruct (String.eqb (fdtname k) c); [reflexivity|apply IH].
Qed.

Lemma find_xtor_cons : forall t ts pol x,
  find_xtor (t :: ts) pol x =
  if fpol_eqb (td_pol t) pol && is_some (find_xsig t x)
  then match find_xsig t x with Some s => Some (t, s) | None => None end
  else find_xtor ts pol x.
Proof.
  intros t ts pol x. unfold find_xtor. simpl.
  destruct (fpol_eqb (td_pol t) pol && is_some (find_xsig t x)); reflexivity.
Qed.

Lemma aget_ct : forall ds c,
  aget (flat_map ct_of_decl ds) c = option_map (fun p => xs_args (snd p)) (find_xtor (tdecls ds) FData c).
Proof.
  induction ds as [|d r IH]; intros c; simpl; [reflexivity|].
  destruct d as [d|d|d]; simpl; try apply IH.
  - rewrite aget_app, find_xtor_cons. simpl td_pol. simpl fpol_eqb.
    rewrite find_xsig_data. rewrite (aget_map_find fctname fctargs).
    destruct (find (fun k => String.eqb (fctname k) c) (fdactors d)) as [k|]; simpl; [reflexivity|apply IH].
Qed.

Definition dt_val (p : tdecl * xsig) : option (fctx * fty) :=
  match xs_ret (snd p) with Some r => Some (xs_args (snd p), r) | None => None end.
Lemma aget_dt : forall ds c,
  aget (flat_map dt_of_decl ds) c = match find_xtor (tdecls ds) FCodata c with Some p => dt_val p | None => None end.
Proof.
  induction ds as [|d r IH]; intros c; simpl; [reflexivity|].
  destruct d as [d|d|d]; simpl; try apply IH.
  - rewrite aget_app, find_xtor_cons. simpl td_pol. simpl fpol_eqb.
    rewrite find_xsig_codata. rewrite (aget_map_find fdtname (fun c => (fdtargs c, fdtcont c))).
    destruct (find (fun k => String.eqb (fdtname k) c) (fcodtors d)) as [k|]; simpl; [reflexivity|apply IH].
Qed.

Lemma aget_df : forall ds f,
  aget (flat_map df_of_decl ds) f = option_map (fun d => (fdctx d, fdret d)) (find_def (fdefs ds) f).
Proof.
  induction ds as [|d r IH]; intros f; simpl; [reflexivity|].
  destruct d as [d|d|d]; simpl; try apply IH.
  unfold find_def. simpl. destruct (String.eqb (fdname d) f); [reflexivity|apply IH].
Qed.

Lemma keys_tt : forall ds, map fst (flat_map tt_of_decl ds) = map td_name (tdecls ds).
Proof. induction ds as [|[d|d|d] r IH]; simpl; try rewrite IH; reflexivity. Qed.
Lemma keys_ct : forall ds, map fst (flat_map ct_of_decl ds) = xtor_names FData (tdecls ds).
Proof.
  induction ds as [|[d|d|d] r IH]; simpl; try assumption; try reflexivity.
  rewrite map_app, IH. unfold xtor_names. simpl. rewrite !map_map. reflexivity.
Qed.
Lemma keys_dt : forall ds, map fst (flat_map dt_of_decl ds) = xtor_names FCodata (tdecls ds).
Proof.
  induction ds as [|[d|d|d] r IH]; simpl; try assumption; try reflexivity.
  rewrite map_app, IH. unfold xtor_names. simpl. rewrite !map_map. reflexivity.
Qed.
Lemma keys_df : forall ds, map fst (flat_map df_of_decl ds) = map fdname (fdefs ds).
Proof. induction ds as [|[d|d|d] r IH]; simpl; try rewrite IH; reflexivity. Qed.

Lemma built_names_ok : forall ds st, built ds st -> names_ok (tdecls ds) (fdefs ds) = true.
Proof.
  intros ds st B. destruct B. unfold names_ok.
  rewrite b_tt0, keys_tt in b_nd_tt0. rewrite b_ct0, keys_ct in b_nd_ct0.
  rewrite b_dt0, keys_dt in b_nd_dt0. rewrite b_df0, keys_df in b_nd_df0.
  rewrite !NoDup_nodup by assumption. reflexivity.
Qed.

Lemma names_no_dups_go_ok : forall l seen, names_no_dups_go seen l = COk tt ->
  nodup l = true /\ forall x, In x l -> ~ In x seen.
Proof.
  induction l as [|x r IH]; intros seen H; simpl in H; [split; [reflexivity|intros ? []]|].
  destruct (mem_name x seen) eqn:E; [discriminate|].
  apply IH in H. destruct H as [Hn Hs]. split.
  - simpl. rewrite Hn, andb_true_r. destruct (mem x r) eqn:Em; [|reflexivity].
    apply mem_In in Em. exfalso. eapply Hs; [eassumption|left; reflexivity].
  - intros y [->|Hy] Hin.
    + assert (mem y seen = true) by (apply mem_In; assumption). unfold mem_name, mem in *. congruence.
    + eapply Hs; [eassumption|right; assumption].
Qed.
Lemma names_no_dups_ok : forall l, names_no_dups l = COk tt -> nodup l = true.
Proof. intros l H. apply names_no_dups_go_ok in H. tauto. Qed.

Lemma check_type_params_go_ok : forall all l,
  check_type_params_go all l = COk tt ->
  forall k pol ps xs, In (k, (pol, ps, xs)) l -> nodup ps = true /\ forallb (fun p => negb (ahas all p)) ps = true.
Proof.
  induction l as [|[k0 [[pol0 ps0] xs0]] r IH]; intros H k pol ps xs Hin; [destruct Hin|].
  simpl in H. apply cbind_ok in H. destruct H as [[] [Hnd H]].
  destruct (existsb (fun p => ahas all p) ps0) eqn:E; [discriminate|].
  destruct Hin as [Heq|Hin]; [|eapply IH; eassumption].
  inversion Heq; subst. split; [apply names_no_dups_ok; assumption|].
  apply forallb_forall. intros p Hp. destruct (ahas all p) eqn:Ea; [|reflexivity].
  exfalso. assert (existsb (fun p => ahas all p) ps = true) by (apply existsb_exists; eauto). congruence.
Qed.

Lemma tt_in : forall ds td, In td (tdecls ds) -> In (td_name td, tt_val td) (flat_map tt_of_decl ds).
Proof.
  induction ds as [|[d|d|d] r IH]; intros td Hin; simpl in *; try tauto; try (apply IH; assumption);
    (destruct Hin as [<-|Hin]; [left; unfold tt_val; simpl; rewrite map_map; reflexivity|right; auto]).
Qed.

Lemma built_type_params_ok : forall ds st,
  built ds st -> check_type_params_go (st_type_templates st) (st_type_templates st) = COk tt ->
  forall td, In td (tdecls ds) ->
    nodup (td_params td) = true /\ forallb (fun p => negb (is_some (find_type (tdecls ds) p))) (td_params td) = true.
Proof.
  intros ds st B H td Hin. destruct B. rewrite b_tt0 in H.
  destruct (check_type_params_go_ok _ _ H (td_name td) (td_pol td) (td_params td) (map xs_name (td_xtors td)) (tt_in _ _ Hin)) as [Hn Hf].
  split; [assumption|]. apply forallb_forall. intros p Hp. rewrite forallb_forall in Hf. specialize (Hf p Hp).
  unfold ahas in Hf. rewrite aget_tt in Hf. destruct (find_type (tdecls ds) p); simpl in *; assumption.
Qed.

(* the tables built from the declarations (type, constructor, destructor templates; definitions), read through
   the lookups of the rules: tt / ct / dt / df.  t_tt_list says more than t_tt (the table IS the declaration list, in
   order): the scan of the table for the owner of an xtor needs it *)
Record tables (ts : list tdecl) (fs : list fdef) (st : symtab) : Prop := {
  t_tt : forall n, aget (st_type_templates st) n = option_map tt_val (find_type ts n);
  t_ct : forall c, aget (st_ctor_templates st) c = option_map (fun p => xs_args (snd p)) (find_xtor ts FData c);
  t_dt : forall c, aget (st_dtor_templates st) c = match find_xtor ts FCodata c with Some p => dt_val p | None => None end;
  t_df : forall f, aget (st_defs st) f = option_map (fun d => (fdctx d, fdret d)) (find_def fs f);
  t_tt_list : st_type_templates st = map (fun td => (td_name td, tt_val td)) ts
}.

Lemma tt_list : forall ds, flat_map tt_of_decl ds = map (fun td => (td_name td, tt_val td)) (tdecls ds).
Proof.
  induction ds as [|[d|d|d] r IH]; simpl; try rewrite IH; try reflexivity;
    unfold tt_val; simpl; rewrite map_map; reflexivity.
Qed.

Theorem build_symbol_table_spec : forall p st,
  build_symbol_table p = COk st ->
  let ts := tdecls (fpdecls p) in let fs := fdefs (fpdecls p) in
  tables ts fs st /\ names_ok ts fs = true
  /\ st_types st = [] /\ st_ctors st = [] /\ st_dtors st = []
  /\ (forall td, In td ts -> nodup (td_params td) = true
                            /\ forallb (fun p => negb (is_some (find_type ts p))) (td_params td) = true).
Proof.
  intros p st H. unfold build_symbol_table in H. inv_ok.
  match goal with Hb : build_decls _ st_empty = COk _ |- _ =>
    pose proof (build_decls_spec _ [] _ _ built_empty Hb) as B end.
  simpl in B. intros ts fs. subst ts fs.
  split; [|split; [eapply built_names_ok; eassumption|]].
  - destruct B. constructor; intros.
    + rewrite b_tt0. apply aget_tt.
    + rewrite b_ct0. apply aget_ct.
    + rewrite b_dt0. apply aget_dt.
    + rewrite b_df0. apply aget_df.
    + rewrite b_tt0. apply tt_list.
  - split; [apply (b_types _ _ B)|]. split; [apply (b_ctors _ _ B)|]. split; [apply (b_dtors _ _ B)|].
    intros td Hin. eapply built_type_params_ok; [eassumption| |eassumption].
    match goal with Hc : check_type_params_go _ _ = COk ?u |- _ => destruct u; exact Hc end.
Qed.
