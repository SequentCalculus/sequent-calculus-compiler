(* Semantic preservation of fun2core for the FIRST-ORDER INTEGER FRAGMENT
   (fun2core_correct_partial): literals, variables, operators, parentheses, non-codata `let` of an
   expression, two- and one-operand conditionals, print_i64/println_i64, exit.

   For every checked program whose `main` body lies in the fragment [islf] (the other definitions
   are arbitrary - the fragment has no calls, so they are never reached), every run of the source
   machine (Sem/FunSem.v) that does not run out of fuel - normal exit, undefined arithmetic and even
   stuck runs (unbound variable) included - is reproduced, output and outcome, by the Core machine
   (Sem/CoreSem.v) on the program produced by the model of fun2core.

   Method: both machines are deterministic fuel-indexed functions.  An integer expression is given a
   denotation [ieval]; the source machine and the Core machine (on the translated expression) are
   each shown to compute it (lemmas [fun_iexp], [core_iexp]); statements are handled by induction on
   the term with a behavioural relation between the source continuation and the body of the mu~
   consumer the translation carries along ([krel]).

   The lemmas about the fuel of the two machines that the later files use as well are here:
   [frun_next], [frun_mono], [crun_mono], and "reaches in exactly k steps" ([freach], [creach]). *)
From Coq Require Import List ZArith NArith String Bool Lia.
From SCC Require Import Base.Sexp Lang.SynUtil Lang.FunSyn Lang.FunTy Lang.CoreSyn.
From SCC Require Import Sem.AxSem Sem.CoreSem Sem.FunSem Model.Fun2Core Proof.Fun2CoreProof Proof.Fun2CoreTfv Proof.Fun2CoreInv.
Import ListNotations.
Open Scope string_scope.
Open Scope list_scope.

(* the fragment: [iexp], [islf] in Model/Fun2Core.v *)

Definition ienv := list (string * Z).
Fixpoint ilookup (ie : ienv) (x : string) : option Z :=
  match ie with
  | [] => None
  | (y, z) :: r => if String.eqb y x then Some z else ilookup r x
  end.
Definition fenv_of (ie : ienv) : fenv := map (fun yz => (fst yz, FbP (FvInt (snd yz)))) ie.
Definition cenv_of (ie : ienv) : cenv := map (fun yz => (new_id (fst yz), BP (PInt (snd yz)))) ie.

Lemma flookup_fenv_of : forall ie x,
  flookup (fenv_of ie) x = option_map (fun z => FbP (FvInt z)) (ilookup ie x).
Proof.
  induction ie as [|[y z] r IH]; intros x; simpl; [reflexivity|].
  destruct (String.eqb y x); [reflexivity | apply IH].
Qed.
Lemma clookup_cenv_of : forall ie x,
  clookup (cenv_of ie) (new_id x) = option_map (fun z => BP (PInt z)) (ilookup ie x).
Proof.
  induction ie as [|[y z] r IH]; intros x; simpl; [reflexivity|].
  unfold cident_eqb, new_id. simpl. rewrite andb_true_r.
  destruct (String.eqb y x); [reflexivity | apply IH].
Qed.

Inductive ires := IVal (z : Z) | IHalt (o : outcome).
Fixpoint ieval (ie : ienv) (t : fterm) : ires :=
  match t with
  | FLit n => IVal n
  | FVar v _ _ => match ilookup ie v with Some z => IVal z | None => IHalt (OStuck "var-unbound") end
  | FOp a o b =>
      match ieval ie a with
      | IVal x =>
          match ieval ie b with
          | IVal y => match eval_op (ax_fbinop o) x y with OpVal z => IVal z | OpUndef w => IHalt (OUndef w) end
          | h => h
          end
      | h => h
      end
  | FParen t' => ieval ie t'
  | _ => IHalt (OStuck "not-an-expression")
  end.

Lemma ax_binop_op_of : forall o, ax_binop (op_of o) = ax_fbinop o.
Proof. destruct o; reflexivity. Qed.
Lemma ax_ifsort_sort_of : forall s, ax_ifsort (sort_of s) = ax_fifsort s.
Proof. destruct s; reflexivity. Qed.

Section Machines.
  Variable p : fcprog.
  Variable cp : cprog.

  Lemma frun_next : forall n c c' out, fstep p c = FNext c' -> frun (S n) p c out = frun n p c' out.
  Proof. intros. simpl. rewrite H. reflexivity. Qed.
  Lemma frun_out : forall n c c' nl z out,
    fstep p c = FOut nl z c' -> frun (S n) p c out = frun n p c' ((nl, z) :: out).
  Proof. intros. simpl. rewrite H. reflexivity. Qed.
  Lemma frun_halt : forall n c o out, fstep p c = FHalt o -> frun (S n) p c out = finish out o.
  Proof. intros. simpl. rewrite H. reflexivity. Qed.
  Lemma crun_next : forall n c c' out, cstep cp c = SNext c' -> crun (S n) cp c out = crun n cp c' out.
  Proof. intros. simpl. rewrite H. reflexivity. Qed.
  Lemma crun_out : forall n c c' nl z out,
    cstep cp c = SPrint nl z c' -> crun (S n) cp c out = crun n cp c' ((nl, z) :: out).
  Proof. intros. simpl. rewrite H. reflexivity. Qed.
  Lemma crun_halt : forall n c o out, cstep cp c = SHalt o -> crun (S n) cp c out = finish out o.
  Proof. intros. simpl. rewrite H. reflexivity. Qed.

  Lemma finish_snd : forall out o, snd (finish out o) = o.
  Proof. reflexivity. Qed.

  Lemma frun_mono : forall n c out o,
    frun n p c out = o -> snd o <> OOutOfFuel -> forall k, frun (n + k) p c out = o.
  Proof.
    induction n as [|n IH]; intros c out o H Hne k.
    - simpl in H. subst o. simpl in Hne. congruence.
    - simpl in *. destruct (fstep p c) as [c'|nl z c'|o']; auto.
  Qed.
  Lemma crun_mono : forall n c out o,
    crun n cp c out = o -> snd o <> OOutOfFuel -> forall k, crun (n + k) cp c out = o.
  Proof.
    induction n as [|n IH]; intros c out o H Hne k.
    - simpl in H. subst o. simpl in Hne. congruence.
    - simpl in *. destruct (cstep cp c) as [c'|nl z c'|o']; auto.
  Qed.

  (* "c reaches c' (with output out') in exactly k steps" as an equation on runs *)
  Definition freach (c : fconfig) (out : prints) (k : nat) (r : nat -> obs) : Prop :=
    forall n, frun (k + n) p c out = r n.
  Definition creach (c : config) (out : prints) (k : nat) (r : nat -> obs) : Prop :=
    forall n, crun (k + n) cp c out = r n.

  Lemma freach_step : forall c c' out k r,
    fstep p c = FNext c' -> freach c' out k r -> freach c out (S k) r.
  Proof. intros c c' out k r Hs Hr n. simpl plus. rewrite (frun_next _ _ _ _ Hs). apply Hr. Qed.
  Lemma creach_step : forall c c' out k r,
    cstep cp c = SNext c' -> creach c' out k r -> creach c out (S k) r.
  Proof. intros c c' out k r Hs Hr n. simpl plus. rewrite (crun_next _ _ _ _ Hs). apply Hr. Qed.
  Lemma freach_halt : forall c out o, fstep p c = FHalt o -> freach c out 1 (fun _ => finish out o).
  Proof. intros c out o Hs n. simpl plus. apply frun_halt. exact Hs. Qed.
  Lemma creach_halt : forall c out o, cstep cp c = SHalt o -> creach c out 1 (fun _ => finish out o).
  Proof. intros c out o Hs n. simpl plus. apply crun_halt. exact Hs. Qed.
  Lemma freach_refl : forall c out, freach c out 0 (fun n => frun n p c out).
  Proof. intros c out n. reflexivity. Qed.
  Lemma creach_refl : forall c out, creach c out 0 (fun n => crun n cp c out).
  Proof. intros c out n. reflexivity. Qed.
  (* sequencing: if c reaches "run c1" in k1 steps and c1 reaches r in k2 steps *)
  Lemma freach_trans : forall c out k1 c1 out1 k2 r,
    freach c out k1 (fun n => frun n p c1 out1) -> freach c1 out1 k2 r -> freach c out (k1 + k2) r.
  Proof. intros c out k1 c1 out1 k2 r H1 H2 n. rewrite <- Nat.add_assoc. rewrite H1. apply H2. Qed.
  Lemma creach_trans : forall c out k1 c1 out1 k2 r,
    creach c out k1 (fun n => crun n cp c1 out1) -> creach c1 out1 k2 r -> creach c out (k1 + k2) r.
  Proof. intros c out k1 c1 out1 k2 r H1 H2 n. rewrite <- Nat.add_assoc. rewrite H1. apply H2. Qed.
  (* a constant result can absorb extra steps *)
  Lemma freach_const_weaken : forall c out k o k', freach c out k (fun _ => o) -> freach c out (k + k') (fun _ => o).
  Proof. intros c out k o k' H n. rewrite <- Nat.add_assoc. apply H. Qed.
  Lemma creach_const_weaken : forall c out k o k', creach c out k (fun _ => o) -> creach c out (k + k') (fun _ => o).
  Proof. intros c out k o k' H n. rewrite <- Nat.add_assoc. apply H. Qed.

  (* what an expression evaluation amounts to, on each machine *)
  Definition fafter (ie : ienv) (e : fterm) (kont : fkont) (out : prints) : nat -> obs :=
    fun n => match ieval ie e with
             | IVal z => frun n p (FRet kont (FvInt z)) out
             | IHalt o => finish out o
             end.
  Definition cafter (ie : ienv) (e : fterm) (m : mk) (out : prints) : nat -> obs :=
    fun n => match ieval ie e with
             | IVal z => crun n cp (App m (BP (PInt z))) out
             | IHalt o => finish out o
             end.

  Lemma fun_iexp : forall e, iexp e = true ->
    forall ie kont out, exists k, freach (FEval e (fenv_of ie) kont) out (S k) (fafter ie e kont out).
  Proof.
    induction e using fterm_ind'; intros Hi ie kont out; simpl in Hi; try discriminate.
    - (* FVar *)
      destruct ty as [[|]|]; try discriminate.
      unfold fafter. simpl. destruct (ilookup ie v) as [z|] eqn:E.
      + exists 0%nat. eapply freach_step; [|apply freach_refl].
        simpl. rewrite flookup_fenv_of, E. reflexivity.
      + exists 0%nat. apply freach_halt. simpl. rewrite flookup_fenv_of, E. reflexivity.
    - (* FLit *)
      exists 0%nat. unfold fafter. simpl. eapply freach_step; [|apply freach_refl]. reflexivity.
    - (* FOp *)
      apply andb_prop in Hi. destruct Hi as [Ha Hb].
      destruct (IHe1 Ha ie (FkOpL o e2 (fenv_of ie) kont) out) as [ka Hka].
      unfold fafter in *. simpl. destruct (ieval ie e1) as [x|oa] eqn:Ea.
      + destruct (IHe2 Hb ie (FkOpR o x kont) out) as [kb Hkb].
        destruct (ieval ie e2) as [y|ob] eqn:Eb.
        * destruct (eval_op (ax_fbinop o) x y) as [z|w] eqn:Eo.
          -- exists ((S ka) + (S ((S kb) + 1))). eapply freach_step; [reflexivity|].
             eapply freach_trans; [exact Hka|]. eapply freach_step; [reflexivity|].
             eapply freach_trans; [exact Hkb|]. eapply freach_step; [|apply freach_refl].
             simpl. rewrite Eo. reflexivity.
          -- exists ((S ka) + (S ((S kb) + 1))). eapply freach_step; [reflexivity|].
             eapply freach_trans; [exact Hka|]. eapply freach_step; [reflexivity|].
             eapply freach_trans; [exact Hkb|]. apply freach_halt.
             simpl. rewrite Eo. reflexivity.
        * exists ((S ka) + (S (S kb))). eapply freach_step; [reflexivity|].
          eapply freach_trans; [exact Hka|]. eapply freach_step; [reflexivity|]. exact Hkb.
      + exists (S ka). eapply freach_step; [reflexivity|]. exact Hka.
    - (* FParen *)
      destruct (IHe Hi ie kont out) as [k Hk]. exists (S k).
      eapply freach_step; [reflexivity|]. exact Hk.
  Qed.

  Lemma core_iexp : forall e, iexp e = true ->
    forall codata cur lg ty st ce st', cmp codata cur lg e ty st = Ok (ce, st') ->
    st' = st /\
    forall ie m out, exists k, creach (Arg (CProducer ce) (cenv_of ie) m) out (S k) (cafter ie e m out).
  Proof.
    induction e using fterm_ind'; intros Hi codata cur lg ty0 st ce st' Hc; simpl in Hi; try discriminate;
      rewrite cmp_unfold in Hc.
    - (* FVar *)
      destruct ty as [[|]|]; try discriminate.
      unfold cmp_var, mbind, mlift, mret in Hc. simpl in Hc. injection Hc as Hce Hst. subst.
      split; [reflexivity|]. intros ie m out.
      unfold cafter. simpl. destruct (ilookup ie v) as [z|] eqn:E.
      + exists 0%nat. eapply creach_step; [|apply creach_refl].
        simpl. rewrite clookup_cenv_of, E. reflexivity.
      + exists 0%nat. apply creach_halt. simpl. rewrite clookup_cenv_of, E. reflexivity.
    - (* FLit *)
      unfold cmp_lit, mret in Hc. injection Hc as Hce Hst. subst.
      split; [reflexivity|]. intros ie m out.
      exists 0%nat. unfold cafter. simpl. eapply creach_step; [|apply creach_refl]. reflexivity.
    - (* FOp *)
      apply andb_prop in Hi. destruct Hi as [Ha Hb].
      apply cmp_op_inv in Hc. destruct Hc as [a' [st1 [b' [E1 [E2 ->]]]]].
      destruct (IHe1 Ha _ _ _ _ _ _ _ E1) as [S1 R1]. destruct (IHe2 Hb _ _ _ _ _ _ _ E2) as [S2 R2]. subst.
      split; [reflexivity|]. intros ie m out.
      destruct (R1 ie (MOpL (op_of o) b' (cenv_of ie) m) out) as [ka Hka].
      unfold cafter in *. simpl. destruct (ieval ie e1) as [x|oa] eqn:Ea.
      + destruct (R2 ie (MOpR (op_of o) x m) out) as [kb Hkb].
        destruct (ieval ie e2) as [y|ob] eqn:Eb.
        * destruct (eval_op (ax_fbinop o) x y) as [z|w] eqn:Eo.
          -- exists ((S ka) + (S ((S kb) + 1))). eapply creach_step; [reflexivity|].
             eapply creach_trans; [exact Hka|]. eapply creach_step; [reflexivity|].
             eapply creach_trans; [exact Hkb|]. eapply creach_step; [|apply creach_refl].
             simpl. rewrite ax_binop_op_of, Eo. reflexivity.
          -- exists ((S ka) + (S ((S kb) + 1))). eapply creach_step; [reflexivity|].
             eapply creach_trans; [exact Hka|]. eapply creach_step; [reflexivity|].
             eapply creach_trans; [exact Hkb|]. apply creach_halt.
             simpl. rewrite ax_binop_op_of, Eo. reflexivity.
        * exists ((S ka) + (S (S kb))). eapply creach_step; [reflexivity|].
          eapply creach_trans; [exact Hka|]. eapply creach_step; [reflexivity|]. exact Hkb.
      + exists (S ka). eapply creach_step; [reflexivity|]. exact Hka.
    - (* FParen *)
      exact (IHe Hi _ _ _ _ _ _ _ Hc).
  Qed.

  (* the source continuation [kont] and the body [sk] of the consumer  mu~ x. sk  behave alike on
     every integer, in every Core environment *)
  Definition krel (kont : fkont) (x : cident) (sk : cstmt) : Prop :=
    forall rho z out n o,
      frun n p (FRet kont (FvInt z)) out = o -> snd o <> OOutOfFuel ->
      exists m, crun m cp (Run sk ((x, BP (PInt z)) :: rho)) out = o.

  Lemma sim_compose : forall cf cc out kf kc (rf rc : nat -> obs),
    freach cf out kf rf -> creach cc out kc rc ->
    (forall n o, rf n = o -> snd o <> OOutOfFuel -> exists m, rc m = o) ->
    forall n o, frun n p cf out = o -> snd o <> OOutOfFuel -> exists m, crun m cp cc out = o.
  Proof.
    intros cf cc out kf kc rf rc Hf Hc Hrel n o Hrun Hne.
    pose proof (frun_mono _ _ _ _ Hrun Hne kf) as Hm. rewrite Nat.add_comm, Hf in Hm.
    destruct (Hrel _ _ Hm Hne) as [m Hm']. exists (kc + m)%nat. rewrite Hc. exact Hm'.
  Qed.

  (* translation of an expression in statement position: a cut against the continuation *)
  Lemma wc_iexp : forall e, iexp e = true ->
    forall codata cur lg cont st sr st', wc codata cur lg e cont st = Ok (sr, st') ->
    exists ce, (forall ty, cmp codata cur lg e ty st = Ok (ce, st')) /\ sr = CCut ce CI64 cont.
  Proof.
    induction e using fterm_ind'; intros Hi codata cur lg cont st sr st' Hw; simpl in Hi; try discriminate;
      rewrite wc_unfold in Hw.
    - destruct ty as [[|]|]; try discriminate.
      unfold wc_var, mbind, mlift, mret in Hw. simpl in Hw. injection Hw as Hs Hst. subst.
      eexists. split; [|reflexivity]. intros ty. rewrite cmp_unfold. reflexivity.
    - unfold wc_lit, mret in Hw. injection Hw as Hs Hst. subst.
      eexists. split; [|reflexivity]. intros ty. rewrite cmp_unfold. reflexivity.
    - unfold wc_op in Hw. unfold mbind at 1 in Hw.
      destruct (cmp_op (cmp codata cur lg e1 CI64) o (cmp codata cur lg e2 CI64) st) as [[pr st1]|?] eqn:E; [|discriminate].
      unfold mret in Hw. injection Hw as Hs Hst. subst.
      exists pr. split; [|reflexivity]. intros ty. rewrite cmp_unfold. exact E.
    - destruct (IHe Hi _ _ _ _ _ _ _ Hw) as [ce [Hc Hs]]. exists ce. split; [|exact Hs].
      intros ty. rewrite cmp_unfold. apply Hc.
  Qed.

  (* running that cut against a mu~ consumer: the value is bound to the mu~ variable *)
  Lemma run_cut_iexp : forall e, iexp e = true ->
    forall codata cur lg st ce st', (forall ty, cmp codata cur lg e ty st = Ok (ce, st')) ->
    forall c xk sk tyk ie out, exists k,
      creach (Run (CCut ce CI64 (CMu c xk sk tyk)) (cenv_of ie)) out (S k)
        (fun n => match ieval ie e with
                  | IVal z => crun n cp (Run sk ((xk, BP (PInt z)) :: cenv_of ie)) out
                  | IHalt o => finish out o
                  end).
  Proof.
    induction e using fterm_ind'; intros Hi codata cur lg st ce st' Hc c xk sk tyk ie out; simpl in Hi; try discriminate.
    - (* FVar *)
      destruct ty as [[|]|]; try discriminate.
      specialize (Hc CI64). rewrite cmp_unfold in Hc.
      unfold cmp_var, mbind, mlift, mret in Hc. simpl in Hc. injection Hc as Hce Hst. subst.
      simpl. destruct (ilookup ie v) as [z|] eqn:E.
      + exists 0%nat. eapply creach_step; [|apply creach_refl].
        simpl. rewrite clookup_cenv_of, E. reflexivity.
      + exists 0%nat. apply creach_halt. simpl. rewrite clookup_cenv_of, E. reflexivity.
    - (* FLit *)
      specialize (Hc CI64). rewrite cmp_unfold in Hc. unfold cmp_lit, mret in Hc. injection Hc as Hce Hst. subst.
      exists 0%nat. simpl. eapply creach_step; [|apply creach_refl]. reflexivity.
    - (* FOp: through core_iexp with the machine continuation MCutK *)
      pose proof (Hc CI64) as Hc1.
      assert (Hio : iexp (FOp e1 o e2) = true) by exact Hi.
      destruct (core_iexp _ Hio _ _ _ _ _ _ _ Hc1) as [_ R].
      destruct (R ie (MCutK (CMu c xk sk tyk) (cenv_of ie)) out) as [k Hk].
      rewrite cmp_unfold in Hc1. apply cmp_op_inv in Hc1. destruct Hc1 as [a' [st1 [b' [_ [_ ->]]]]].
      exists (k + 1)%nat. intros n.
      (* the first step of the cut and of the argument evaluation lead to the same configuration *)
      assert (Heq : forall j, crun (S j) cp (Run (CCut (COp a' (op_of o) b') CI64 (CMu c xk sk tyk)) (cenv_of ie)) out =
                              crun (S j) cp (Arg (CProducer (COp a' (op_of o) b')) (cenv_of ie)
                                                 (MCutK (CMu c xk sk tyk) (cenv_of ie))) out).
      { intros j. reflexivity. }
      replace (S (k + 1) + n)%nat with (S (k + S n))%nat by lia.
      rewrite Heq. replace (S (k + S n))%nat with (S k + S n)%nat by lia. rewrite Hk.
      unfold cafter. destruct (ieval ie (FOp e1 o e2)) as [z|oh]; [|reflexivity].
      apply crun_next. reflexivity.
    - (* FParen *)
      apply (IHe Hi codata cur lg st ce st'). intros ty. specialize (Hc ty). rewrite cmp_unfold in Hc. exact Hc.
  Qed.

  Lemma iexp_stmt_sim : forall e, iexp e = true ->
    forall codata cur lg c x sk tyk st s st' ie kont out,
    wc codata cur lg e (CMu c x sk tyk) st = Ok (s, st') ->
    krel kont x sk ->
    forall n o, frun n p (FEval e (fenv_of ie) kont) out = o -> snd o <> OOutOfFuel ->
    exists m, crun m cp (Run s (cenv_of ie)) out = o.
  Proof.
    intros e Hi codata cur lg c x sk tyk st s st' ie kont out Hw Hk.
    destruct (wc_iexp _ Hi _ _ _ _ _ _ _ Hw) as [ce [Hc Hs]]. subst s.
    destruct (fun_iexp _ Hi ie kont out) as [kf Hf].
    destruct (run_cut_iexp _ Hi _ _ _ _ _ _ Hc c x sk tyk ie out) as [kc Hcr].
    eapply sim_compose; [exact Hf | exact Hcr |].
    intros n o Hr Hne. unfold fafter in Hr. destruct (ieval ie e) as [z|oh].
    - apply (Hk _ _ _ _ _ Hr Hne).
    - exists 0%nat. exact Hr.
  Qed.

  Lemma freach_out : forall c c' nl z out k r,
    fstep p c = FOut nl z c' -> freach c' ((nl, z) :: out) k r -> freach c out (S k) r.
  Proof. intros c c' nl z out k r Hs Hr n. simpl plus. rewrite (frun_out _ _ _ _ _ _ Hs). apply Hr. Qed.
  Lemma creach_out : forall c c' nl z out k r,
    cstep cp c = SPrint nl z c' -> creach c' ((nl, z) :: out) k r -> creach c out (S k) r.
  Proof. intros c c' nl z out k r Hs Hr n. simpl plus. rewrite (crun_out _ _ _ _ _ _ Hs). apply Hr. Qed.

  (* a halted run on both sides *)
  Lemma sim_both_halt : forall cf cc out kf kc o',
    freach cf out kf (fun _ => finish out o') -> creach cc out kc (fun _ => finish out o') ->
    forall n o, frun n p cf out = o -> snd o <> OOutOfFuel -> exists m, crun m cp cc out = o.
  Proof.
    intros cf cc out kf kc o' Hf Hc. eapply sim_compose; [exact Hf | exact Hc |].
    intros n o Hr _. exists 0%nat. exact Hr.
  Qed.

  (* a continuation without free variables is never captured *)
  Lemma guard_capture_closed : forall lg binders w ty cont, tfv_term cont [] = [] ->
    guard_capture lg binders w ty cont = w cont.
  Proof.
    intros lg binders w ty cont H. unfold guard_capture, captures. rewrite H.
    replace (existsb _ binders) with false by (induction binders; [reflexivity | assumption]).
    destruct lg; reflexivity.
  Qed.

  Lemma islf_sim : forall t, islf t = true ->
    forall codata cur lg c xk sk tyk st sr st' ie kont out,
    cont_is_small (CMu c xk sk tyk) = true -> tfv_term (CMu c xk sk tyk) [] = [] ->
    wc codata cur lg t (CMu c xk sk tyk) st = Ok (sr, st') ->
    krel kont xk sk ->
    forall n o, frun n p (FEval t (fenv_of ie) kont) out = o -> snd o <> OOutOfFuel ->
    exists m, crun m cp (Run sr (cenv_of ie)) out = o.
  Proof.
    induction t using fterm_ind';
      intros Hi codata cur lg c xk sk tyk st sr st' ie kont out Hsmall Hclosed Hw Hk; simpl in Hi; try discriminate.
    - (* FVar *) eapply iexp_stmt_sim; eauto.
    - (* FLit *) eapply iexp_stmt_sim; eauto.
    - (* FOp *) eapply iexp_stmt_sim; eauto.
    - (* FIfC *)
      apply andb_prop in Hi. destruct Hi as [Hi Hi3]. apply andb_prop in Hi. destruct Hi as [Hi Hi2].
      apply andb_prop in Hi. destruct Hi as [Hia Hib].
      rewrite wc_unfold in Hw. apply wc_ifc_inv in Hw.
      destruct Hw as [cont1 [st0 [a' [st1 [bo [st2 [t2' [st3 [t3' [Hsh [Ea [Hbo [E2 [E3 ->]]]]]]]]]]]]]].
      rewrite Hsmall in Hsh. destruct Hsh as [-> ->].
      destruct (core_iexp _ Hia _ _ _ _ _ _ _ Ea) as [_ Ra].
      destruct (fun_iexp _ Hia ie (FkIf1 s b t2 t3 (fenv_of ie) kont) out) as [kfa Hfa].
      destruct b as [b'|].
      + (* two operands *)
        destruct Hbo as [b'' [Eb ->]].
        destruct (core_iexp _ Hib _ _ _ _ _ _ _ Eb) as [_ Rb].
        destruct (Ra ie (MIf1 (sort_of s) (Some b'') t2' t3' (cenv_of ie)) out) as [kca Hca].
        unfold fafter in Hfa. unfold cafter in Hca.
        destruct (ieval ie t1) as [x|oa] eqn:Eva.
        * destruct (fun_iexp _ Hib ie (FkIf2 s x t2 t3 (fenv_of ie) kont) out) as [kfb Hfb].
          destruct (Rb ie (MIf2 (sort_of s) x t2' t3' (cenv_of ie)) out) as [kcb Hcb].
          unfold fafter in Hfb. unfold cafter in Hcb.
          destruct (ieval ie b') as [y|ob] eqn:Evb.
          -- eapply sim_compose.
             ++ eapply freach_step; [reflexivity|]. eapply freach_trans; [exact Hfa|].
                eapply freach_step; [reflexivity|]. eapply freach_trans; [exact Hfb|].
                eapply freach_step; [reflexivity|]. apply freach_refl.
             ++ eapply creach_step; [reflexivity|]. eapply creach_trans; [exact Hca|].
                eapply creach_step; [reflexivity|]. eapply creach_trans; [exact Hcb|].
                eapply creach_step; [reflexivity|]. apply creach_refl.
             ++ cbv beta. rewrite ax_ifsort_sort_of.
                destruct (eval_cmp (ax_fifsort s) x y).
                ** intros n o. eapply IHt2; eauto.
                ** intros n o. eapply IHt3; eauto.
          -- eapply sim_both_halt.
             ++ eapply freach_step; [reflexivity|]. eapply freach_trans; [exact Hfa|].
                eapply freach_step; [reflexivity|]. exact Hfb.
             ++ eapply creach_step; [reflexivity|]. eapply creach_trans; [exact Hca|].
                eapply creach_step; [reflexivity|]. exact Hcb.
        * eapply sim_both_halt.
          -- eapply freach_step; [reflexivity|]. exact Hfa.
          -- eapply creach_step; [reflexivity|]. exact Hca.
      + (* comparison with zero *)
        destruct Hbo as [-> ->].
        destruct (Ra ie (MIf1 (sort_of s) None t2' t3' (cenv_of ie)) out) as [kca Hca].
        unfold fafter in Hfa. unfold cafter in Hca.
        destruct (ieval ie t1) as [x|oa] eqn:Eva.
        * eapply sim_compose.
          -- eapply freach_step; [reflexivity|]. eapply freach_trans; [exact Hfa|].
             eapply freach_step; [reflexivity|]. apply freach_refl.
          -- eapply creach_step; [reflexivity|]. eapply creach_trans; [exact Hca|].
             eapply creach_step; [reflexivity|]. apply creach_refl.
          -- cbv beta. rewrite ax_ifsort_sort_of.
             destruct (eval_cmp (ax_fifsort s) x 0).
             ++ intros n o. eapply IHt2; eauto.
             ++ intros n o. eapply IHt3; eauto.
        * eapply sim_both_halt.
          -- eapply freach_step; [reflexivity|]. exact Hfa.
          -- eapply creach_step; [reflexivity|]. exact Hca.
    - (* FPrint *)
      apply andb_prop in Hi. destruct Hi as [Hia Hin].
      rewrite wc_unfold in Hw. apply wc_print_inv in Hw. destruct Hw as [a' [st1 [next' [Ea [E2 ->]]]]].
      destruct (core_iexp _ Hia _ _ _ _ _ _ _ Ea) as [_ Ra].
      destruct (fun_iexp _ Hia ie (FkPrint nl t2 (fenv_of ie) kont) out) as [kfa Hfa].
      destruct (Ra ie (MPrint nl next' (cenv_of ie)) out) as [kca Hca].
      unfold fafter in Hfa. unfold cafter in Hca.
      destruct (ieval ie t1) as [z|oa] eqn:Eva.
      + eapply sim_compose.
        * eapply freach_step; [reflexivity|]. eapply freach_trans; [exact Hfa|].
          eapply freach_out; [reflexivity|]. apply freach_refl.
        * eapply creach_step; [reflexivity|]. eapply creach_trans; [exact Hca|].
          eapply creach_out; [reflexivity|]. apply creach_refl.
        * cbv beta. intros n o. eapply IHt2; eauto.
      + eapply sim_both_halt.
        * eapply freach_step; [reflexivity|]. exact Hfa.
        * eapply creach_step; [reflexivity|]. exact Hca.
    - (* FLet *)
      destruct vty as [|]; [|discriminate].
      apply andb_prop in Hi. destruct Hi as [Hib Hibody].
      rewrite wc_unfold in Hw. rewrite (guard_capture_closed _ _ _ _ _ Hclosed) in Hw.
      apply wc_let_inv in Hw; [|reflexivity]. destruct Hw as [body' [st1 [E2 Hw]]].
      destruct (fun_iexp _ Hib ie (FkLet v t2 (fenv_of ie) kont) out) as [kfa Hfa].
      destruct (wc_iexp _ Hib _ _ _ _ _ _ _ Hw) as [ce [Hc Hs]]. subst sr.
      destruct (run_cut_iexp _ Hib _ _ _ _ _ _ Hc CCns (new_id v) body' CI64 ie out) as [kc Hcr].
      unfold fafter in Hfa.
      destruct (ieval ie t1) as [z|oa] eqn:Eva.
      + eapply sim_compose.
        * eapply freach_step; [reflexivity|].
          eapply freach_trans; [exact Hfa|].
          eapply freach_step; [reflexivity|]. apply freach_refl.
        * exact Hcr.
        * cbv beta. intros n o.
          change ((v, FbP (FvInt z)) :: fenv_of ie) with (fenv_of ((v, z) :: ie)).
          change ((new_id v, BP (PInt z)) :: cenv_of ie) with (cenv_of ((v, z) :: ie)).
          eapply IHt2; eauto.
      + eapply sim_both_halt.
        * eapply freach_step; [reflexivity|]. exact Hfa.
        * exact Hcr.
    - (* FExit *)
      destruct ty as [ety|]; [|discriminate].
      rewrite wc_unfold in Hw. apply wc_exit_inv in Hw. destruct Hw as [a' [ty0 [Ea [_ ->]]]].
      destruct (core_iexp _ Hi _ _ _ _ _ _ _ Ea) as [_ Ra].
      destruct (fun_iexp _ Hi ie FkExit out) as [kfa Hfa].
      destruct (Ra ie MExit out) as [kca Hca].
      unfold fafter in Hfa. unfold cafter in Hca.
      destruct (ieval ie t) as [z|oa] eqn:Eva.
      + eapply sim_both_halt with (o' := OExit z).
        * eapply freach_step; [reflexivity|]. eapply freach_trans; [exact Hfa|].
          apply freach_halt. reflexivity.
        * eapply creach_step; [reflexivity|]. eapply creach_trans; [exact Hca|].
          apply creach_halt. reflexivity.
      + eapply sim_both_halt.
        * eapply freach_step; [reflexivity|]. exact Hfa.
        * eapply creach_step; [reflexivity|]. exact Hca.
    - (* FParen *)
      rewrite wc_unfold in Hw.
      intros n o. eapply sim_compose.
      + eapply freach_step; [reflexivity|]. apply freach_refl.
      + apply creach_refl.
      + cbv beta. intros n' o'. eapply IHt; eauto.
  Qed.
End Machines.

Lemma compile_defs_prefix : forall lg called defs codata ul front back res,
  compile_defs lg called defs codata ul front back = Ok res ->
  (forall d, In d defs -> fdname d <> "main") ->
  exists tl, res = front ++ tl.
Proof.
  intros lg called. induction defs as [|d r IH]; intros codata ul front back res H Hnm; simpl in H.
  - injection H as H. subst. eexists. reflexivity.
  - destruct (String.eqb (fdname d) "main") eqn:E.
    + apply String.eqb_eq in E. exfalso. apply (Hnm d); [left; reflexivity | exact E].
    + destruct (compile_def lg d codata ul) as [[g ul']|?]; simpl in H; [|discriminate].
      eapply IH; [exact H|]. intros d' Hd'. apply Hnm. right. exact Hd'.
Qed.

Lemma compile_defs_main_head : forall lg called defs codata ul front back res d,
  compile_defs lg called defs codata ul front back = Ok res ->
  NoDup (map fdname defs) -> In d defs -> fdname d = "main" ->
  exists ul1 g ul2 tl, compile_main_group lg called d codata ul1 = Ok (g, ul2) /\ res = g ++ front ++ tl.
Proof.
  intros lg called. induction defs as [|d0 r IH]; intros codata ul front back res d H Hnd Hin Hmain; simpl in H; [contradiction|].
  simpl in Hnd. inversion Hnd as [|? ? Hnot Hnd']; subst.
  destruct (String.eqb (fdname d0) "main") eqn:E.
  - apply String.eqb_eq in E.
    assert (d = d0).
    { destruct Hin as [Hin|Hin]; [symmetry; exact Hin|]. exfalso. apply Hnot. rewrite E, <- Hmain.
      apply in_map. exact Hin. }
    subst d0.
    destruct (compile_main_group lg called d codata ul) as [[g ul']|?] eqn:Em; simpl in H; [|discriminate].
    destruct (compile_defs_prefix _ _ _ _ _ _ _ _ H) as [tl Htl].
    + intros d' Hd' Hc. apply Hnot. rewrite E, <- Hc. apply in_map. exact Hd'.
    + exists ul, g, ul', tl. split; [exact Em|]. rewrite Htl, app_assoc. reflexivity.
  - destruct Hin as [Hin|Hin]; [subst d0; rewrite Hmain in E; discriminate|].
    destruct (compile_def lg d0 codata ul) as [[g ul']|?]; simpl in H; [|discriminate].
    eapply IH; eauto.
Qed.

Lemma entry_envs : forall ctx args,
  match fbind (fvars ctx) (map (fun z => FbP (FvInt z)) args) [] with
  | Some rf => exists ie, rf = fenv_of ie /\
                 cbind (cvars (compile_ctx ctx)) (map (fun z => BP (PInt z)) args) [] = Some (cenv_of ie)
  | None => cbind (cvars (compile_ctx ctx)) (map (fun z => BP (PInt z)) args) [] = None
  end.
Proof.
  induction ctx as [|b r IH]; intros args; destruct args as [|z args]; simpl; try reflexivity.
  - exists []. split; reflexivity.
  - specialize (IH args).
    destruct (fbind (fvars r) (map (fun z0 => FbP (FvInt z0)) args) []) as [rf|].
    + destruct IH as [ie [Hrf Hc]]. unfold cvars, compile_ctx in Hc. unfold cvars, compile_ctx. rewrite Hc.
      exists ((fbvar b, z) :: ie). subst rf. split; reflexivity.
    + unfold cvars, compile_ctx in IH. unfold cvars, compile_ctx. rewrite IH. reflexivity.
Qed.

Lemma entry_chi : forall ctx,
  forallb (fun b => match cbchi b with CPrd => true | CCns => false end) (compile_ctx ctx) =
  forallb (fun b => match fbchi b with FPrd => true | FCns => false end) ctx.
Proof.
  induction ctx as [|b r IH]; simpl; [reflexivity|]. rewrite IH. destruct (fbchi b); reflexivity.
Qed.

Lemma krel_halt : forall p cp x ty,
  krel p cp FkHalt (new_id x) (CExit (CXVar CPrd (new_id x) ty) ty).
Proof.
  intros p cp x ty rho z out n o Hrun Hne.
  destruct n as [|n]; [simpl in Hrun; subst o; simpl in Hne; congruence|].
  simpl in Hrun. exists 3%nat. subst o. simpl.
  unfold cident_eqb, new_id. simpl. rewrite String.eqb_refl. simpl. reflexivity.
Qed.

(* fun2core_correct_partial: semantic preservation for programs whose main lies in the
   first-order integer fragment.  Missing for the full theorem: calls, data (constructors/case),
   codata (new/destructors, by-name bindings), labels/goto, `let` whose bound term is itself a
   statement-like term, and shared continuations (conditionals in non-tail position). *)
Theorem fun2core_correct_partial_lemma : forall (p : fcprog) (c : cprog) (d : fdef) (args : list Z) (n : nat) (o : obs),
  compile_prog p = Ok c ->
  NoDup (map fdname (fcpdefs p)) ->
  ffind_def p "main" = Some d ->
  islf (fdbody d) = true ->
  calls_main_prog p = false ->
  run_fun n p args = o -> snd o <> OOutOfFuel ->
  exists m, run_core m c args = o.
Proof.
  intros p c d args n o Hcomp Hnd Hfind Hfrag Hncm Hrun Hne.
  unfold compile_prog, compile_prog_gen in Hcomp. rewrite Hncm in Hcomp.
  destruct (compile_defs false false (fcpdefs p) _ _ [] []) as [defs|?] eqn:Ed; simpl in Hcomp; [|discriminate].
  injection Hcomp as Hc. subst c.
  destruct (find_def_in _ _ _ Hfind) as [Hin Hname].
  destruct (compile_defs_main_head _ _ _ _ _ _ _ _ _ Ed Hnd Hin Hname) as [ul1 [g [ul2 [tl [Hm Hres]]]]].
  simpl in Hres. subst defs.
  unfold compile_main_group in Hm. cbn [andb] in Hm.
  destruct (compile_main_inv _ _ _ _ _ _ Hm) as [bty [x0 [stx [body [st [_ [_ [Eb [-> _]]]]]]]]].
  unfold run_fun in Hrun. rewrite Hfind in Hrun. unfold run_core. simpl.
  unfold fentry_env in Hrun. unfold centry_env. simpl. rewrite entry_chi.
  destruct (forallb _ (fdctx d)).
  - pose proof (entry_envs (fdctx d) args) as He.
    destruct (fbind (fvars (fdctx d)) (map (fun z => FbP (FvInt z)) args) []) as [rf|].
    + destruct He as [ie [Hrf Hce]]. rewrite Hce. subst rf.
      match type of Eb with wc _ _ _ _ ?cont _ = _ => assert (Hcl : tfv_term cont [] = []) end.
      { cbn [tfv_term tfv_stmt bset_insert bset_union fold_left flip_chi bset_remove].
        rewrite cbinding_compare_refl. reflexivity. }
      eapply islf_sim; [exact Hfrag | | exact Hcl | exact Eb | apply krel_halt | exact Hrun | exact Hne]. reflexivity.
    + rewrite He. exists 0%nat. exact Hrun.
  - exists 0%nat. exact Hrun.
Qed.
