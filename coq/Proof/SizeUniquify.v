(* C19, the renaming pass `uniquify` (Model/Uniquify.v) preserves every size measure: it replaces
   variables by variables (subst_sim with a range of XVar terms) and renames binders in contexts of
   unchanged length.  Proved for the parametrised measure cz k of Proof/SizeGen.v, read off for the
   node count (size_cprog) and the weighted size (c_wprog); with focus_stmt_size this gives the
   unconditional bound for Prog::focus. *)
From Coq Require Import String List ZArith NArith Bool Lia.
From SCC Require Import Base.Sexp Lang.SynUtil Lang.CoreSyn Lang.SynInd Lang.AxSize Lang.FsSize Lang.CoreSize
     Model.Backend Model.Uniquify Model.Focus Proof.SizeLin Proof.SizeGen Proof.SizeFocus.
Import ListNotations.
Open Scope list_scope.
Open Scope N_scope.
Local Arguments N.add : simpl never.
Local Arguments N.mul : simpl never.
Local Arguments len : simpl never.

Section K.
  Variable k : N.
  Notation zt := (cz_term k).
  Notation za := (cz_arg k).
  Notation zc := (cz_clause k).
  Notation zs := (cz_stmt k).

  (* a substitution whose range consists of terms of size 1 (variables) *)
  Definition vsub (s : csubst) : Prop := Forall (fun p => zt (snd p) = 1) s.

  Lemma vsub_filter : forall f s, vsub s -> vsub (filter f s).
  Proof.
    intros f s H. unfold vsub in *. rewrite Forall_forall in *. intros p Hp. apply filter_In in Hp. apply H. tauto.
  Qed.
  Lemma vsub_find : forall x s t, vsub s -> subst_find x s = Some t -> zt t = 1.
  Proof.
    intros x s t H. induction H as [|[v u] r Hu Hr IH]; cbn [subst_find]; [discriminate|].
    destruct (cident_eqb v x); [intros E; inversion E; subst; exact Hu | exact IH].
  Qed.

  (* mapping a size-preserving function over a list preserves the sum of the sizes ([zl] = cz_args k / cz_clauses k) *)
  Lemma mapr_size : forall {A} (z : A -> N) (zl : list A -> N), (forall a r, zl (a :: r) = z a + zl r) ->
    forall (f : A -> res A) l, Forall (fun a => forall a', f a = Ok a' -> z a' = z a) l ->
    forall l', mapr f l = Ok l' -> zl l' = zl l.
  Proof.
    intros A z zl Hz f l H. induction H as [|a r Ha Hr IH]; intros l' E; cbn [mapr] in E.
    - inversion E; reflexivity.
    - bind E. bind E. inversion E; subst. rewrite !Hz, (Ha _ eq_refl), (IH _ eq_refl). reflexivity.
  Qed.
  Lemma maprs_size : forall {A} (z : A -> N) (zl : list A -> N), (forall a r, zl (a :: r) = z a + zl r) ->
    forall (f : A -> N -> res (A * N)) l, Forall (fun a => forall m a' m', f a m = Ok (a', m') -> z a' = z a) l ->
    forall m l' m', maprs f l m = Ok (l', m') -> zl l' = zl l.
  Proof.
    intros A z zl Hz f l H. induction H as [|a r Ha Hr IH]; intros m l' m' E; cbn [maprs] in E.
    - inversion E; reflexivity.
    - bind E. destruct x as [y m1]. bind E. destruct x as [r' m2]. inversion E; subst.
      rewrite !Hz, (Ha _ _ _ E0), (IH _ _ _ E1). reflexivity.
  Qed.
  Definition mapr_args_size ps cs := mapr_size za (cz_args k) (fun _ _ => eq_refl) (fun a => subst_arg a ps cs).
  Definition mapr_clauses_size ps cs := mapr_size zc (cz_clauses k) (fun _ _ => eq_refl) (fun c => subst_clause c ps cs).

  (* subst_sim with variable ranges preserves the size *)
  Lemma subst_size_all :
    (forall t c ps cs t', vsub ps -> vsub cs -> subst_term c t ps cs = Ok t' -> zt t' = zt t) /\
    (forall a ps cs a', vsub ps -> vsub cs -> subst_arg a ps cs = Ok a' -> za a' = za a) /\
    (forall cl ps cs cl', vsub ps -> vsub cs -> subst_clause cl ps cs = Ok cl' -> zc cl' = zc cl) /\
    (forall s ps cs s', vsub ps -> vsub cs -> subst_stmt s ps cs = Ok s' -> zs s' = zs s).
  Proof.
    apply cterm_mutind.
    - intros c v ty c0 ps cs t' Hp Hc E. cbn [subst_term] in E.
      destruct (subst_find v (match c0 with CPrd => ps | CCns => cs end)) as [u|] eqn:F; inversion E; subst; [|reflexivity].
      cbn [cz_term]. destruct c0; [apply (vsub_find v ps t' Hp F) | apply (vsub_find v cs t' Hc F)].
    - intros n c ps cs t' Hp Hc E. cbn [subst_term] in E. destruct c; inversion E; reflexivity.
    - intros a o b Ha Hb c ps cs t' Hp Hc E. cbn [subst_term] in E. destruct c; [|discriminate].
      bind E. bind E. inversion E; subst. cbn [cz_term]. rewrite (Ha _ _ _ _ Hp Hc E0), (Hb _ _ _ _ Hp Hc E1). reflexivity.
    - intros c v s ty Hs c0 ps cs t' Hp Hc E. cbn [subst_term] in E. bind E. inversion E; subst. cbn [cz_term].
      erewrite Hs; [reflexivity| | |exact E0]; apply vsub_filter; assumption.
    - intros c x args ty H c0 ps cs t' Hp Hc E. cbn [subst_term] in E. bind E. inversion E; subst.
      rewrite !cz_term_xtor. f_equal. eapply mapr_args_size; [|exact E0].
      eapply Forall_impl; [|exact H]. intros a Ha a' Ea. exact (Ha _ _ _ Hp Hc Ea).
    - intros c cls ty H c0 ps cs t' Hp Hc E. cbn [subst_term] in E. bind E. inversion E; subst.
      rewrite !cz_term_xcase. f_equal. eapply mapr_clauses_size; [|exact E0].
      eapply Forall_impl; [|exact H]. intros a Ha a' Ea. exact (Ha _ _ _ Hp Hc Ea).
    - intros p Hp0 ps cs a' Hp Hc E. cbn [subst_arg] in E. bind E. inversion E; subst. cbn [cz_arg]. exact (Hp0 _ _ _ _ Hp Hc E0).
    - intros p Hp0 ps cs a' Hp Hc E. cbn [subst_arg] in E. bind E. inversion E; subst. cbn [cz_arg]. exact (Hp0 _ _ _ _ Hp Hc E0).
    - intros c x ctx body Hb ps cs cl' Hp Hc E. cbn [subst_clause] in E. bind E. inversion E; subst. cbn [cz_clause].
      erewrite Hb; [reflexivity| | |exact E0]; apply vsub_filter; assumption.
    - intros p ty q Hp0 Hq ps cs s' Hp Hc E. cbn [subst_stmt] in E. bind E. bind E. inversion E; subst. cbn [cz_stmt].
      rewrite (Hp0 _ _ _ _ Hp Hc E0), (Hq _ _ _ _ Hp Hc E1). reflexivity.
    - intros so a b t e Ha Hb Ht He ps cs s' Hp Hc E. cbn [subst_stmt] in E. bind E. bind E. bind E. bind E.
      inversion E; subst. cbn [cz_stmt]. rewrite (Ha _ _ _ _ Hp Hc E0), (Ht _ _ _ Hp Hc E2), (He _ _ _ Hp Hc E3).
      destruct b as [b0|].
      + bind E1. inversion E1; subst. rewrite (Hb b0 eq_refl _ _ _ _ Hp Hc E4). reflexivity.
      + inversion E1; subst. reflexivity.
    - intros nl a next Ha Hn ps cs s' Hp Hc E. cbn [subst_stmt] in E. bind E. bind E. inversion E; subst. cbn [cz_stmt].
      rewrite (Ha _ _ _ _ Hp Hc E0), (Hn _ _ _ Hp Hc E1). reflexivity.
    - intros f args ty H ps cs s' Hp Hc E. cbn [subst_stmt] in E. bind E. inversion E; subst.
      rewrite !cz_stmt_call. f_equal. eapply mapr_args_size; [|exact E0].
      eapply Forall_impl; [|exact H]. intros a Ha a' Ea. exact (Ha _ _ _ Hp Hc Ea).
    - intros a ty Ha ps cs s' Hp Hc E. cbn [subst_stmt] in E. bind E. inversion E; subst. cbn [cz_stmt].
      rewrite (Ha _ _ _ _ Hp Hc E0). reflexivity.
  Qed.
  Definition subst_stmt_size := proj2 (proj2 (proj2 subst_size_all)).

  (* the context loop: same length, variable ranges *)
  Lemma vsub_rev : forall s, vsub s -> vsub (frev s).
  Proof.
    intros s H. unfold vsub, frev in *. rewrite rev_append_rev, app_nil_r. apply Forall_rev. exact H.
  Qed.
  Lemma uq_context_vsub : forall bs m acc vs cs ctx' vs' cs' m',
    uq_context bs m acc vs cs = (ctx', vs', cs', m') -> vsub vs -> vsub cs ->
    len ctx' = len bs + len acc /\ vsub vs' /\ vsub cs'.
  Proof.
    induction bs as [|b r IH]; intros m acc vs cs ctx' vs' cs' m' E Hv Hc; cbn [uq_context] in E.
    - inversion E; subst. split; [|split; apply vsub_rev; assumption].
      unfold frev, len. rewrite rev_append_rev, app_nil_r, rev_length. simpl. lia.
    - destruct (N.eqb (cid_id (cbvar b)) 0).
      + unfold fresh_identifier in E. destruct (cbchi b).
        * apply IH in E; [|constructor; [reflexivity|assumption]|assumption]. rewrite !len_cons in *. destruct E as (E & ? & ?). split; [lia|tauto].
        * apply IH in E; [|assumption|constructor; [reflexivity|assumption]]. rewrite !len_cons in *. destruct E as (E & ? & ?). split; [lia|tauto].
      + apply IH in E; try assumption. rewrite !len_cons in *. destruct E as (E & ? & ?). split; [lia|tauto].
  Qed.

  Lemma vsub_one : forall v c nv ty, vsub [(v, CXVar c nv ty)].
  Proof. intros. constructor; [reflexivity | constructor]. Qed.
  Lemma vsub_nil : vsub [].
  Proof. constructor. Qed.

  Lemma uq_size_all : forall f,
    (forall t m t' m', uq_term f t m = Ok (t', m') -> zt t' = zt t) /\
    (forall c m c' m', uq_clause f c m = Ok (c', m') -> zc c' = zc c) /\
    (forall s m s' m', uq_stmt f s m = Ok (s', m') -> zs s' = zs s).
  Proof.
    induction f as [|f (IHt & IHc & IHs)]; [repeat split; intros; discriminate|].
    assert (IHa : forall a m a' m', uq_arg_with (uq_term f) a m = Ok (a', m') -> za a' = za a).
    { intros a m a' m' E. unfold uq_arg_with in E. destruct a as [p|p]; bind E; destruct x as [p' m1]; inversion E; subst;
        cbn [cz_arg]; eapply IHt; eauto. }
    assert (IHas : forall args m args' m', maprs (uq_arg_with (uq_term f)) args m = Ok (args', m') -> cz_args k args' = cz_args k args).
    { intros args. apply (maprs_size za (cz_args k) (fun _ _ => eq_refl)). apply Forall_forall. intros a _. apply IHa. }
    repeat split.
    - intros t m t' m' E. cbn [uq_term] in E. destruct t as [c v ty|n|a o b|c v s ty|c x args ty|c cls ty].
      + inversion E; reflexivity.
      + inversion E; reflexivity.
      + bind E. destruct x as [a' m1]. bind E. destruct x as [b' m2]. inversion E; subst. cbn [cz_term].
        rewrite (IHt _ _ _ _ E0), (IHt _ _ _ _ E1). reflexivity.
      + destruct (N.eqb (cid_id v) 0).
        * unfold fresh_identifier in E. bind E. bind E. destruct x0 as [s2 m2]. inversion E; subst. cbn [cz_term].
          rewrite (IHs _ _ _ _ E1). f_equal.
          destruct c; [unfold subst_covar_stmt in E0 | unfold subst_var_stmt in E0];
            (eapply subst_stmt_size; [| |exact E0]); first [apply vsub_one | apply vsub_nil].
        * bind E. destruct x as [s' m1]. inversion E; subst. cbn [cz_term]. rewrite (IHs _ _ _ _ E0). reflexivity.
      + bind E. destruct x0 as [args' m1]. inversion E; subst. rewrite !cz_term_xtor. f_equal. eapply IHas; eauto.
      + bind E. destruct x as [cls' m1]. inversion E; subst. rewrite !cz_term_xcase. f_equal.
        eapply (maprs_size zc (cz_clauses k) (fun _ _ => eq_refl)); [|exact E0]. apply Forall_forall. intros a _. apply IHc.
    - intros cl m cl' m' E. cbn [uq_clause] in E. destruct cl as [c x ctx body].
      destruct (uq_context ctx m [] [] []) as [[[ctx' vs] cs] m1] eqn:U.
      apply uq_context_vsub in U; [|apply vsub_nil|apply vsub_nil]. destruct U as (Hl & Hv & Hc).
      bind E. bind E. destruct x1 as [body2 m2]. inversion E; subst. cbn [cz_clause].
      rewrite (IHs _ _ _ _ E1). rewrite Hl, len_nil, N.add_0_r. f_equal.
      destruct (is_nil vs && is_nil cs); [inversion E0; reflexivity|]. exact (subst_stmt_size _ _ _ _ Hv Hc E0).
    - intros s m s' m' E. cbn [uq_stmt] in E. destruct s as [p ty q|so a b t e|nl a next|g args ty|a ty].
      + bind E. destruct x as [p' m1]. bind E. destruct x as [q' m2]. inversion E; subst. cbn [cz_stmt].
        rewrite (IHt _ _ _ _ E0), (IHt _ _ _ _ E1). reflexivity.
      + bind E. destruct x as [a' m1]. bind E. destruct x as [b' m2]. bind E. destruct x as [t' m3].
        bind E. destruct x as [e' m4]. inversion E; subst. cbn [cz_stmt].
        rewrite (IHt _ _ _ _ E0), (IHs _ _ _ _ E2), (IHs _ _ _ _ E3).
        destruct b as [b0|].
        * bind E1. destruct x as [b1 m5]. inversion E1; subst. rewrite (IHt _ _ _ _ E4). reflexivity.
        * inversion E1; subst. reflexivity.
      + bind E. destruct x as [a' m1]. bind E. destruct x as [n' m2]. inversion E; subst. cbn [cz_stmt].
        rewrite (IHt _ _ _ _ E0), (IHs _ _ _ _ E1). reflexivity.
      + bind E. destruct x as [args' m1]. inversion E; subst. rewrite !cz_stmt_call. f_equal. eapply IHas; eauto.
      + bind E. destruct x as [a' m1]. inversion E; subst. cbn [cz_stmt]. rewrite (IHt _ _ _ _ E0). reflexivity.
  Qed.

  Lemma uq_def_size : forall d m d' m', uq_def d m = Ok (d', m') -> cz_def k d' = cz_def k d.
  Proof.
    intros d m d' m' E. unfold uq_def in E.
    destruct (uq_context (cdctx d) m [] [] []) as [[[ctx' vs] cs] m1] eqn:U.
    apply uq_context_vsub in U; [|apply vsub_nil|apply vsub_nil]. destruct U as (Hl & Hv & Hc).
    bind E. bind E. destruct x0 as [body2 m2]. inversion E; subst. unfold cz_def. cbn [cdctx cdbody].
    rewrite (proj2 (proj2 (uq_size_all _)) _ _ _ _ E1). rewrite Hl, len_nil, N.add_0_r. f_equal.
    destruct (is_nil vs && is_nil cs); [inversion E0; reflexivity|]. exact (subst_stmt_size _ _ _ _ Hv Hc E0).
  Qed.
  Lemma uq_defs_size : forall ds m ds' m', maprs uq_def ds m = Ok (ds', m') -> cz_defs k ds' = cz_defs k ds.
  Proof.
    induction ds as [|d r IH]; intros m ds' m' E; cbn [maprs] in E.
    - inversion E; reflexivity.
    - bind E. destruct x as [d' m1]. bind E. destruct x as [r' m2]. inversion E; subst. cbn [cz_defs].
      rewrite (uq_def_size _ _ _ _ E0), (IH _ _ _ E1). reflexivity.
  Qed.
  Lemma uniquify_cz : forall p p1, uniquify_prog p = Ok p1 -> cz_defs k (cpdefs p1) = cz_defs k (cpdefs p).
  Proof.
    intros p p1 E. unfold uniquify_prog in E. bind E. destruct x as [ds m]. inversion E; subst. cbn [cpdefs].
    eapply uq_defs_size; eauto.
  Qed.
End K.

Theorem uniquify_size_lemma : forall p p1, uniquify_prog p = Ok p1 ->
  c_wprog p1 = c_wprog p /\ size_cprog p1 = size_cprog p.
Proof.
  intros p p1 E. rewrite <- !cz1_prog, <- !cz0_prog. split; apply uniquify_cz; exact E.
Qed.

Theorem focus_prog_size_lemma : forall p q, focus_prog p = Ok q -> fs_wprog q <= 4 * c_wprog p.
Proof.
  intros p q H. destruct (uniquify_prog p) as [p1|e] eqn:U.
  - rewrite <- (proj1 (uniquify_size_lemma _ _ U)). eapply focus_prog_size_partial_lemma; eauto.
  - unfold focus_prog in H. rewrite U in H. discriminate.
Qed.
