(* Proof/Fun2CoreTyProg  -  typing preservation of fun2core at the level of programs:
     prog_tyguard p = true -> compile_prog p = Ok c -> wt_core c = true
   Every Core definition of the output is either the image of a source definition or a lifted
   `share_<f>_<n>` definition of its group; [tw_all] types the bodies, the callee lookup and the lookup of
   lifted definitions come from the distinctness of definition names (Proof/Fun2CoreProof.v). *)
From Coq Require Import List ZArith NArith String Bool Lia.
From SCC Require Import Base.Sexp Lang.SynUtil Lang.FunSyn Lang.FunTy Lang.CoreSyn.
From SCC Require Import Sem.AxSem Sem.FunSem Sem.FsCheck Sem.CoreCheck Model.Fun2Core Model.Fun2CoreGuard Model.Fun2CoreTyGuard.
From SCC Require Import Proof.CoreInd Proof.Fun2CoreProof Proof.Fun2CoreTfv Proof.Fun2CoreInv Proof.Fun2CoreProg Proof.CoreTyRules
     Proof.CoreTyFv Proof.CoreTyChi Proof.Fun2CoreTyBase Proof.Fun2CoreTyEntry Proof.Fun2CoreTyShare Proof.Fun2CoreTyMain Proof.Fun2CoreTyTerm Proof.Fun2CoreTyScope.
Import ListNotations.
Open Scope string_scope.
Open Scope list_scope.

(* every definition of the output belongs to the group of a source definition *)
Lemma compile_defs_cover_grp : forall lg called defs codata ul front back res,
  compile_defs lg called defs codata ul front back = Ok res ->
  forall x, In x res ->
    In x front \/ In x back \/
    exists d ul1 g ul2, In d defs /\
      (if String.eqb (fdname d) "main" then compile_main_group lg called d codata ul1 else compile_def lg d codata ul1) = Ok (g, ul2) /\
      In x g /\ incl g res.
Proof.
  intros lg called. induction defs as [|d r IH]; intros codata ul front back res H x Hx; simpl in H.
  - injection H as H. subst res. apply in_app_or in Hx. destruct Hx as [Hx|Hx]; [left; exact Hx|].
    right. left. rewrite rev_append_rev, app_nil_r in Hx. apply in_rev in Hx. exact Hx.
  - destruct (String.eqb (fdname d) "main") eqn:E.
    + destruct (compile_main_group lg called d codata ul) as [[g ul']|?] eqn:Em; simpl in H; [|discriminate].
      destruct (compile_defs_groups _ _ _ _ _ _ _ _ H) as [_ [Hfr _]].
      destruct (IH _ _ _ _ _ H x Hx) as [H1|[H1|[d' [ul1 [g' [ul2 [Hd' [Hc [Hin Hinc]]]]]]]]].
      * apply in_app_or in H1. destruct H1 as [H1|H1]; [|left; exact H1].
        right. right. exists d, ul, g, ul'. rewrite E. split; [left; reflexivity|]. split; [exact Em|]. split; [exact H1|].
        intros y Hy. apply Hfr. apply in_or_app. left. exact Hy.
      * right. left. exact H1.
      * right. right. exists d', ul1, g', ul2. split; [right; exact Hd' | repeat split; assumption].
    + destruct (compile_def lg d codata ul) as [[g ul']|?] eqn:Em; simpl in H; [|discriminate].
      destruct (compile_defs_groups _ _ _ _ _ _ _ _ H) as [_ [_ Hbk]].
      destruct (IH _ _ _ _ _ H x Hx) as [H1|[H1|[d' [ul1 [g' [ul2 [Hd' [Hc [Hin Hinc]]]]]]]]].
      * left. exact H1.
      * rewrite rev_append_rev in H1. apply in_app_or in H1. destruct H1 as [H1|H1]; [|right; left; exact H1].
        right. right. exists d, ul, g, ul'. rewrite E. apply in_rev in H1. split; [left; reflexivity|]. split; [exact Em|].
        split; [exact H1|]. intros y Hy. apply Hbk. rewrite rev_append_rev. apply in_or_app. left. apply in_rev in Hy. exact Hy.
      * right. right. exists d', ul1, g', ul2. split; [right; exact Hd' | repeat split; assumption].
Qed.

Section Prog.
  Variable p : fcprog.
  Variable c : cprog.
  Hypothesis Hcomp : compile_prog p = Ok c.
  Hypothesis Hguard : prog_tyguard p = true.
  Notation D := (cdata_of p).
  Notation C := (ccodata_of p).

  Lemma guard_decls : decls_tyguard p = true.
  Proof. unfold prog_tyguard in Hguard. apply andb_prop in Hguard. tauto. Qed.
  Lemma guard_def : forall d, In d (fcpdefs p) -> def_tyguard p D C d = true.
  Proof. intros d Hd. unfold prog_tyguard in Hguard. apply andb_prop in Hguard. destruct Hguard as [_ H]. rewrite forallb_forall in H. apply H. exact Hd. Qed.
  Lemma src_names_nodup : NoDup (map fdname (fcpdefs p)).
  Proof. pose proof guard_decls as H. unfold decls_tyguard in H. apply andb_prop in H. destruct H as [_ H]. apply nodup_str_nd0. exact H. Qed.

  Lemma prog_shape : exists defs,
    compile_defs false (calls_main_prog p) (fcpdefs p) C (map fdname (fcpdefs p)) [] [] = Ok defs /\ c = mkcp defs D C 0.
  Proof.
    unfold compile_prog, compile_prog_gen in Hcomp. fold D C in Hcomp.
    destruct (compile_defs false (calls_main_prog p) (fcpdefs p) C _ [] []) as [defs|?] eqn:E; simpl in Hcomp; [|discriminate].
    injection Hcomp as Hc. exists defs. auto.
  Qed.

  Lemma out_find : forall d, In d (cpdefs c) -> find (fun d' => cident_eqb (cdname d') (cdname d)) (cpdefs c) = Some d.
  Proof. intros d Hd. apply cfind_nodup; [|exact Hd]. apply (compile_prog_def_names_distinct p c Hcomp src_names_nodup). Qed.

  Lemma group_of : forall d, In d (fcpdefs p) -> exists ul1 g ul2,
    (if String.eqb (fdname d) "main" then compile_main_group false (calls_main_prog p) d C ul1 else compile_def false d C ul1) = Ok (g, ul2) /\
    incl g (cpdefs c).
  Proof.
    intros d Hd. destruct prog_shape as [defs [Hdefs Hc]].
    destruct (compile_defs_groups _ _ _ _ _ _ _ _ Hdefs) as [Hgroups _].
    destruct (Hgroups d Hd) as [ul1 [g [ul2 [H1 H2]]]]. exists ul1, g, ul2. split; [exact H1|]. rewrite Hc. exact H2.
  Qed.

  (* every definition that can be called is compiled by compile_def: all but main, and main too when it is called *)
  Lemma callee_group : forall d, In d (fcpdefs p) -> (fdname d <> "main" \/ calls_main_prog p = true) ->
    exists ul1 g ul2, compile_def false d C ul1 = Ok (g, ul2) /\ incl g (cpdefs c).
  Proof.
    intros d Hin Hm. destruct (group_of d Hin) as [ul1 [g [ul2 [Hc Hincl]]]].
    destruct (String.eqb (fdname d) "main") eqn:Em.
    - apply String.eqb_eq in Em. destruct Hm as [Hm|Hm]; [contradiction|].
      destruct (compile_main_group_inv _ _ _ _ _ _ _ Hc) as [[Hf _]|[_ [nm [e [ule [m [_ [_ [Hd ->]]]]]]]]].
      + rewrite Hm in Hf. discriminate Hf.
      + exists ule, m, ul2. split; [exact Hd|]. intros x Hx. apply Hincl. apply in_or_app. right. exact Hx.
    - exists ul1, g, ul2. auto.
  Qed.

  Lemma callee : forall f d, ffind_def p f = Some d -> (f <> "main" \/ calls_main_prog p = true) ->
    exists a body, find (fun d' => cident_eqb (cdname d') (new_id f)) (cpdefs c) =
                   Some (mkcd (new_id f) (compile_ctx (fdctx d) ++ [mkcb (new_id a) CCns (compile_ty (fdret d))]) body).
  Proof.
    intros f d Hf Hnm. destruct (find_def_in _ _ _ Hf) as [Hin Hname].
    destruct (callee_group d Hin) as [ul1 [g [ul2 [Hc Hincl]]]]; [rewrite Hname; exact Hnm|].
    apply compile_def_inv in Hc. destruct Hc as (bty & a & sta & body & st' & _ & _ & _ & -> & _). exists a, body. rewrite <- Hname.
    change (new_id (fdname d)) with (cdname (mkcd (new_id (fdname d))
               (compile_ctx (fdctx d) ++ [mkcb (new_id a) CCns (compile_ty (fdret d))]) body)) at 1.
    apply out_find. apply Hincl. left. reflexivity.
  Qed.

  Notation def_typed := (def_typed D C (cpdefs c)).

  Lemma tg_under_extra : forall G t ab a, tg p D C G t = true -> cbvar ab = new_id a -> ~ In a (fv_fterm t) ->
    tg p D C (G ++ [ab]) t = true.
  Proof.
    intros G t ab a Hg Hab Hn. rewrite <- Hg. apply tg_ext. intros x Hx. rewrite clookup_app.
    destruct (clookup G (new_id x)) as [b|] eqn:E; [reflexivity|].
    exfalso. exact (tg_fv_scope p D C t G Hg x Hx E).
  Qed.

  Lemma fv_in_params : forall (d : fdef) x, tg p D C (compile_ctx (fdctx d)) (fdbody d) = true ->
    In x (fv_fterm (fdbody d)) -> In x (fvars (fdctx d)).
  Proof.
    intros d x Hg Hx. pose proof (tg_fv_scope p D C _ _ Hg x Hx) as Hb. unfold bound_in in Hb.
    destruct (clookup (compile_ctx (fdctx d)) (new_id x)) as [b|] eqn:E; [|congruence].
    pose proof (clookup_var _ _ _ E) as Hv. apply clookup_In in E. destruct (compile_ctx_binder _ _ E) as [v [Ev Hin]].
    rewrite Ev in Hv. apply new_id_inj in Hv. subst v. exact Hin.
  Qed.

  (* a definition compiled by compile_def (any definition - member of p or not - whose parameters are pairwise distinct
     and of declared types and whose body is typed at the declared return type), and its lifted definitions *)
  Lemma def_typed_gen : forall d ul1 g ul2,
    nodup_str (fvars (fdctx d)) = true -> ctx_tyd D C (compile_ctx (fdctx d)) = true ->
    tg p D C (compile_ctx (fdctx d)) (fdbody d) = true ->
    has_ty (fdbody d) (compile_ty (fdret d)) = true -> tyd D C (compile_ty (fdret d)) = true ->
    compile_def false d C ul1 = Ok (g, ul2) -> incl g (cpdefs c) -> forall x, In x g -> def_typed x.
  Proof.
    intros d ul1 g ul2 Hnd Hctd Htg Hret Htdr Hc Hincl.
    apply has_ty_tyo in Hret.
    apply compile_def_inv in Hc. destruct Hc as (bty & a & sta & body & st' & Ebty & Ha & Hwc & -> & _).
    destruct (fresh_in_vars_inv _ _ _ _ Ha) as [Hfresh [Hused [_ Hlift]]]. simpl in Hfresh, Hused, Hlift.
    set (U := used_binders (fdbody d) (fvars (fdctx d))) in *.
    assert (Ebt : compile_ty bty = compile_ty (fdret d)).
    { unfold tyo in Hret. rewrite Ebty in Hret. simpl in Hret. injection Hret as Hret. exact Hret. }
    rewrite Ebt in Hwc.
    set (ab := mkcb (new_id a) CCns (compile_ty (fdret d))).
    assert (Hfvp : forall x, In x (fv_fterm (fdbody d)) -> In x U).
    { intros x Hx. apply used_binders_mono. eapply fv_in_params; eassumption. }
    assert (Hna : ~ In a (fv_fterm (fdbody d))) by (intros Hin; apply Hfresh; apply Hfvp; exact Hin).
    assert (Hnp : ~ In a (fvars (fdctx d))) by (intros Hin; apply Hfresh; apply used_binders_mono; exact Hin).
    assert (Hla : clookup (compile_ctx (fdctx d) ++ [ab]) (new_id a) = Some ab).
    { rewrite clookup_app, (clookup_compile_ctx_none _ _ Hnp). simpl. cbn [cbvar ab]. rewrite cident_eqb_refl. reflexivity. }
    assert (Hf : Hfind (cpdefs c) (st_lifted st')).
    { intros x Hx. apply out_find. apply Hincl. right. exact Hx. }
    destruct (proj1 (tw_all p (cpdefs c) (fdname d) U callee (fdbody d))
                (compile_ctx (fdctx d) ++ [ab]) [] (CXVar CCns (new_id a) (compile_ty (fdret d))) (compile_ty (fdret d))
                sta body st' Hwc) as [W1 W2]; auto.
    - apply (tg_under_extra _ _ ab a); auto.
    - intros x Hx. rewrite Hused. right. apply Hfvp. exact Hx.
    - intros x Hx. eapply (tg_bnd_used p D C); eassumption.
    - intros x [].
    - rewrite Hused. apply incl_tl. apply incl_refl.
    - intros G' Hag. apply ct_var. repeat split.
      assert (Hgen : gen U sta a) by (split; [rewrite Hused; left; reflexivity | exact Hfresh]).
      rewrite (Hag a (or_intror Hgen)). exact Hla.
    - destruct (W2 (tyd_fv_var p _ _ _ Htdr)) as [_ W3].
      intros x [<-|Hx].
      + unfold Fun2CoreTyShare.def_typed. cbn [cdctx cdbody]. split; [|split; [|exact W1]].
        * apply compile_ctx_snoc_nodup; assumption.
        * intros b Hb. apply in_app_or in Hb. destruct Hb as [Hb|[<-|[]]]; [|exact Htdr].
          unfold ctx_tyd in Hctd. rewrite forallb_forall in Hctd. apply Hctd. exact Hb.
      + assert (Hall : Forall (Fun2CoreTyShare.def_typed D C (cpdefs c)) (st_lifted st')).
        { apply W3. rewrite Hlift. simpl. constructor. }
        rewrite Forall_forall in Hall. apply Hall. exact Hx.
  Qed.

  (* a definition compiled by compile_main (main when it is not called; the entry point when it is), and its lifted
     definitions: parameters pairwise distinct and of declared types, body typed at i64 *)
  Lemma main_typed_gen : forall d ul1 g ul2,
    nodup_str (fvars (fdctx d)) = true -> ctx_tyd D C (compile_ctx (fdctx d)) = true ->
    tg p D C (compile_ctx (fdctx d)) (fdbody d) = true -> has_ty (fdbody d) CI64 = true ->
    compile_main false d C ul1 = Ok (g, ul2) -> incl g (cpdefs c) -> forall x, In x g -> def_typed x.
  Proof.
    intros d ul1 g ul2 Hnd Hctd Htg Hret Hc Hincl.
    apply has_ty_tyo in Hret.
    apply compile_main_inv in Hc. destruct Hc as (bty & x0 & sta & body & st' & Ebty & Ha & Hwc & -> & _).
    destruct (fresh_in_vars_inv _ _ _ _ Ha) as [Hfresh [Hused [_ Hlift]]]. simpl in Hfresh, Hused, Hlift.
    set (U := used_binders (fdbody d) (fvars (fdctx d))) in *.
    assert (Ebt : compile_ty bty = CI64).
    { unfold tyo in Hret. rewrite Ebty in Hret. simpl in Hret. injection Hret as Hret. exact Hret. }
    rewrite Ebt in Hwc.
    assert (Hfvp : forall x, In x (fv_fterm (fdbody d)) -> In x U).
    { intros x Hx. apply used_binders_mono. eapply fv_in_params; eassumption. }
    assert (Hf : Hfind (cpdefs c) (st_lifted st')).
    { intros x Hx. apply out_find. apply Hincl. right. exact Hx. }
    set (k := CMu CCns (new_id x0) (CExit (CXVar CPrd (new_id x0) CI64) CI64) CI64).
    destruct (proj1 (tw_all p (cpdefs c) (fdname d) U callee (fdbody d))
                (compile_ctx (fdctx d)) [] k CI64 sta body st' Hwc) as [W1 W2]; auto.
    - intros x Hx. rewrite Hused. right. apply Hfvp. exact Hx.
    - intros x Hx. eapply (tg_bnd_used p D C); eassumption.
    - intros x [].
    - rewrite Hused. apply incl_tl. apply incl_refl.
    - intros G' _. apply ct_mu. repeat split. apply cs_exit. split; [reflexivity|].
      apply ct_var. repeat split. rewrite clookup_cons. cbn [cbvar]. rewrite cident_eqb_refl. reflexivity.
    - assert (Hk : tyd_fv D C (fvt k)) by (intros b Hb; exfalso; exact (exit_cont_fvt _ _ _ Hb)).
      destruct (W2 Hk) as [_ W3].
      intros x [<-|Hx].
      + unfold Fun2CoreTyShare.def_typed. cbn [cdctx cdbody]. split; [|split; [|exact W1]].
        * apply compile_ctx_nodup. exact Hnd.
        * intros b Hb. unfold ctx_tyd in Hctd. rewrite forallb_forall in Hctd. apply Hctd. exact Hb.
      + assert (Hall : Forall (Fun2CoreTyShare.def_typed D C (cpdefs c)) (st_lifted st')).
        { apply W3. rewrite Hlift. simpl. constructor. }
        rewrite Forall_forall in Hall. apply Hall. exact Hx.
  Qed.

  Lemma def_group_typed : forall d ul1 g ul2, In d (fcpdefs p) -> String.eqb (fdname d) "main" = false ->
    compile_def false d C ul1 = Ok (g, ul2) -> incl g (cpdefs c) -> forall x, In x g -> def_typed x.
  Proof.
    intros d ul1 g ul2 Hd Em Hc Hincl.
    pose proof (guard_def d Hd) as Hgd. unfold def_tyguard in Hgd. rewrite Em in Hgd.
    apply andb_prop in Hgd as [[[Hnd Hctd]%andb_prop Htg]%andb_prop [Hret Htdr]%andb_prop].
    eapply def_typed_gen; eassumption.
  Qed.

  (* the definitions that come first: main compiled by compile_main, or - when main is called (fix f929eb7) - the entry
     point  def main<n>(params) { main(params, mu~x. exit x) }  followed by main compiled like any other definition *)
  Lemma main_group_typed : forall d ul1 g ul2, In d (fcpdefs p) -> String.eqb (fdname d) "main" = true ->
    compile_main_group false (calls_main_prog p) d C ul1 = Ok (g, ul2) -> incl g (cpdefs c) -> forall x, In x g -> def_typed x.
  Proof.
    intros d ul1 g ul2 Hd Em Hc Hincl.
    pose proof (guard_def d Hd) as Hgd. unfold def_tyguard in Hgd. rewrite Em in Hgd.
    apply andb_prop in Hgd as [[[Hnd Hctd]%andb_prop Htg]%andb_prop [Hret Hcalled]%andb_prop].
    destruct (compile_main_group_inv _ _ _ _ _ _ _ Hc) as [[_ Hm]|[Hcm [nm [e [ule [m [_ [He [Hm ->]]]]]]]]].
    - eapply main_typed_gen; eassumption.
    - rewrite andb_true_r in Hcm. rewrite Hcm in Hcalled. cbn [negb orb] in Hcalled. apply ceq_ty in Hcalled.
      assert (Htdr : tyd D C (compile_ty (fdret d)) = true) by (rewrite Hcalled; reflexivity).
      apply String.eqb_eq in Em.
      intros x Hx. apply in_app_or in Hx. destruct Hx as [Hx|Hx].
      + refine (main_typed_gen (entry_fdef d nm) _ _ _ Hnd Hctd _ _ He _ x Hx).
        * exact (entry_tg p D C d nm Hnd Hctd (find_def_nodup p d src_names_nodup Hd) Em Hcm Htdr).
        * unfold entry_fdef, has_ty, tyo. cbn [fdbody fterm_type option_map]. rewrite Hcalled. reflexivity.
        * intros y Hy. apply Hincl. apply in_or_app. left. exact Hy.
      + refine (def_typed_gen d _ _ _ Hnd Hctd Htg _ Htdr Hm _ x Hx).
        * rewrite Hcalled. exact Hret.
        * intros y Hy. apply Hincl. apply in_or_app. right. exact Hy.
  Qed.

  Lemma all_defs_typed : forall x, In x (cpdefs c) -> def_typed x.
  Proof.
    intros x Hx. destruct prog_shape as [defs [Hdefs Hc]].
    assert (Hx' : In x defs) by (rewrite Hc in Hx; exact Hx).
    destruct (compile_defs_cover_grp _ _ _ _ _ _ _ _ Hdefs x Hx') as [[]|[[]|[d [ul1 [g [ul2 [Hd [Hg [Hin Hinc]]]]]]]]].
    assert (Hincl : incl g (cpdefs c)) by (rewrite Hc; exact Hinc).
    destruct (String.eqb (fdname d) "main") eqn:Em.
    - eapply main_group_typed; eassumption.
    - eapply def_group_typed; eassumption.
  Qed.

  Lemma pol_ok_data : forallb (pol_ok_ctydecl CData) D = true.
  Proof.
    unfold cdata_of. apply forallb_forall. intros t Ht. apply in_map_iff in Ht. destruct Ht as [d [<- _]].
    unfold pol_ok_ctydecl, compile_data. cbn [ctpol ctxtors]. simpl. apply forallb_forall. intros x Hx.
    apply in_map_iff in Hx. destruct Hx as [cs0 [<- _]]. reflexivity.
  Qed.
  Lemma pol_ok_codata : forallb (pol_ok_ctydecl CCodata) C = true.
  Proof.
    unfold ccodata_of. apply forallb_forall. intros t Ht. apply in_map_iff in Ht. destruct Ht as [d [<- _]].
    unfold pol_ok_ctydecl, compile_codata. cbn [ctpol ctxtors]. simpl. apply forallb_forall. intros x Hx.
    apply in_map_iff in Hx. destruct Hx as [cs0 [<- _]]. reflexivity.
  Qed.

  Theorem fun2core_preserves_typing_guarded : wt_core c = true.
  Proof.
    destruct prog_shape as [defs [Hdefs Hc]].
    pose proof guard_decls as Hd. unfold decls_tyguard in Hd.
    apply andb_prop in Hd as [[[Hn Hcont]%andb_prop Hx]%andb_prop _].
    assert (ED : cpdata c = D) by (rewrite Hc; reflexivity).
    assert (EC : cpcodata c = C) by (rewrite Hc; reflexivity).
    apply wt_core_iff, check_core_iff. cbv zeta. rewrite ED, EC. repeat apply conj; [|exact Hn|exact Hcont|exact Hx| |].
    - unfold chi_ok_cprog. rewrite ED, EC, pol_ok_data, pol_ok_codata, !andb_true_r.
      apply forallb_forall. intros x Hx0. destruct (all_defs_typed x Hx0) as [_ [_ H3]].
      eapply typed_chi_ok. exact H3.
    - apply nodup_by_NoDup. apply (compile_prog_def_names_distinct p c Hcomp src_names_nodup).
    - apply ccheck_defs_iff, Forall_forall. intros x Hx0. destruct (all_defs_typed x Hx0) as [H1 [H2 H3]].
      unfold cdef_typed. rewrite ED, EC, Hc. cbn [cpdefs]. rewrite Hc in H3. cbn [cpdefs] in H3.
      split; [exact H1|]. split; [apply forallb_forall; exact H2 | exact H3].
  Qed.
End Prog.

(* the theorem of Props/C12.v *)
Theorem fun2core_preserves_typing_frag2 : forall p c,
  prog_tyguard p = true -> compile_prog p = Ok c -> wt_core c = true.
Proof. intros p c Hg Hc. exact (fun2core_preserves_typing_guarded p c Hc Hg). Qed.
