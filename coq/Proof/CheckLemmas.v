(* Lemmas about the boolean checkers of Model/FocusCheck.v (the checks on Core terms used by the uniquify / focusing
   proofs; not the type checker of Model/Check.v): monotonicity of the id bound [ids_le_*] and of the scope
   environment [scoped_*] (only ids <> 0 are checked), the binder specification
   [bspec] with its composition rules, and the tactics that discharge its list side conditions. *)
From Coq Require Import List ZArith NArith String Bool Lia.
From SCC Require Import Base.Sexp Lang.CoreSyn Model.Backend Model.Uniquify Model.FocusCheck
     Proof.CoreInd Proof.SubstProof.
Import ListNotations.
Open Scope list_scope.
Open Scope N_scope.

Lemma mem_le_app : forall b l1 l2, mem_le b (l1 ++ l2) <-> mem_le b l1 /\ mem_le b l2.
Proof.
  unfold mem_le; intros; split.
  - intros H; split; intros i Hi; apply H; apply in_or_app; auto.
  - intros [H1 H2] i Hi; apply in_app_or in Hi; destruct Hi; auto.
Qed.
Lemma mem_le_mono : forall b b' l, mem_le b l -> b <= b' -> mem_le b' l.
Proof. unfold mem_le; intros b b' l H L i Hi. specialize (H i Hi). lia. Qed.
Lemma mem_le_nil : forall b, mem_le b [].
Proof. intros b i []. Qed.
Lemma mem_le_cons : forall b x l, mem_le b (x :: l) <-> x <= b /\ mem_le b l.
Proof.
  unfold mem_le; intros; split.
  - intros H; split; [apply H; left; auto | intros i Hi; apply H; right; auto].
  - intros [H1 H2] i [E|Hi]; subst; auto.
Qed.

Lemma forallb_impl : forall (X : Type) (f g : X -> bool) l,
  (forall x, In x l -> f x = true -> g x = true) -> forallb f l = true -> forallb g l = true.
Proof.
  intros X f g l H F. rewrite forallb_forall in *. intros x Hx; auto.
Qed.

Lemma ids_le_mono_all : forall b b', b <= b' ->
  (forall t, ids_le_term b t = true -> ids_le_term b' t = true) /\
  (forall a, ids_le_arg b a = true -> ids_le_arg b' a = true) /\
  (forall c, ids_le_clause b c = true -> ids_le_clause b' c = true) /\
  (forall s, ids_le_stmt b s = true -> ids_le_stmt b' s = true).
Proof.
  intros b b' L. apply core_mutind; simpl; intros; bsplit; auto.
  - apply N.leb_le in H. apply N.leb_le. lia.
  - apply N.leb_le in H0. apply N.leb_le. lia.
  - eapply forallb_impl; [|eassumption]. rewrite Forall_forall in H. auto.
  - eapply forallb_impl; [|eassumption]. rewrite Forall_forall in H. auto.
  - eapply forallb_impl; [|eassumption]. intros i _ Hi. apply N.leb_le in Hi. apply N.leb_le. lia.
  - destruct b0; simpl in *; auto.
  - eapply forallb_impl; [|eassumption]. rewrite Forall_forall in H. auto.
Qed.
Definition ids_le_term_mono b b' (L : b <= b') := proj1 (ids_le_mono_all b b' L).
Definition ids_le_arg_mono b b' (L : b <= b') := proj1 (proj2 (ids_le_mono_all b b' L)).
Definition ids_le_clause_mono b b' (L : b <= b') := proj1 (proj2 (proj2 (ids_le_mono_all b b' L))).
Definition ids_le_stmt_mono b b' (L : b <= b') := proj2 (proj2 (proj2 (ids_le_mono_all b b' L))).

(* inclusion of scope environments up to id 0: [scoped_*] only asks occurrences with id <> 0 to be below a binder *)
Definition sub_nz (env env' : list N) : Prop := forall i, i <> 0 -> In i env -> In i env'.
Lemma sub_nz_refl : forall e, sub_nz e e.
Proof. intros e i _ H; auto. Qed.
Lemma sub_nz_trans : forall a b c, sub_nz a b -> sub_nz b c -> sub_nz a c.
Proof. unfold sub_nz; intros; auto. Qed.
Lemma sub_nz_cons : forall x e e', sub_nz e e' -> sub_nz (x :: e) (x :: e').
Proof. intros x e e' H i Ni [E|Hi]; [left; auto | right; auto]. Qed.
Lemma sub_nz_app : forall l e e', sub_nz e e' -> sub_nz (l ++ e) (l ++ e').
Proof. intros l e e' H i Ni Hi. apply in_app_or in Hi. apply in_or_app. destruct Hi; auto. Qed.
Lemma sub_nz_app2 : forall l l' e e', sub_nz l l' -> sub_nz e e' -> sub_nz (l ++ e) (l' ++ e').
Proof. intros l l' e e' H1 H2 i Ni Hi. apply in_app_or in Hi. apply in_or_app. destruct Hi; auto. Qed.
Lemma sub_nz_drop0 : forall e, sub_nz (0 :: e) e.
Proof. intros e i Ni [E|Hi]; [congruence | auto]. Qed.
Lemma sub_nz_skip : forall x e e', sub_nz e e' -> sub_nz e (x :: e').
Proof. intros x e e' H i Ni Hi. right; auto. Qed.
Lemma sub_nz_incl : forall e e', incl e e' -> sub_nz e e'.
Proof. intros e e' H i _ Hi; auto. Qed.

Lemma scoped_mono_all :
  (forall t env env', sub_nz env env' -> scoped_term env t = true -> scoped_term env' t = true) /\
  (forall a env env', sub_nz env env' -> scoped_arg env a = true -> scoped_arg env' a = true) /\
  (forall c env env', sub_nz env env' -> scoped_clause env c = true -> scoped_clause env' c = true) /\
  (forall s env env', sub_nz env env' -> scoped_stmt env s = true -> scoped_stmt env' s = true).
Proof.
  apply core_mutind; simpl; intros; bsplit; eauto 2.
  - destruct (N.eqb (cid_id v) 0) eqn:Z; simpl in *; auto.
    apply N.eqb_neq in Z. apply memN_In. apply memN_In in H0. auto.
  - eapply H; [|eassumption]. apply sub_nz_cons; auto.
  - eapply forallb_impl; [|eassumption]. rewrite Forall_forall in H. eauto.
  - eapply forallb_impl; [|eassumption]. rewrite Forall_forall in H. eauto.
  - eapply H; [|eassumption]. apply sub_nz_app; auto.
  - destruct b; simpl in *; eauto.
  - eapply forallb_impl; [|eassumption]. rewrite Forall_forall in H. eauto.
Qed.
Definition scoped_term_mono := proj1 scoped_mono_all.
Definition scoped_arg_mono := proj1 (proj2 scoped_mono_all).
Definition scoped_clause_mono := proj1 (proj2 (proj2 scoped_mono_all)).
Definition scoped_stmt_mono := proj2 (proj2 (proj2 scoped_mono_all)).

(* [bspec R m m' L]: the binder ids L of an output are pairwise distinct and each is either
   inherited (in R) or fresh, i.e. in the half-open counter interval (m, m']. *)
Definition bspec (R : list N) (m m' : N) (L : list N) : Prop :=
  NoDup L /\ forall b, In b L -> In b R \/ (m < b <= m').

Lemma not_in_app : forall (X : Type) (x : X) l1 l2, ~ In x (l1 ++ l2) -> ~ In x l1 /\ ~ In x l2.
Proof. intros X x l1 l2 H; split; intro; apply H; apply in_or_app; auto. Qed.
Lemma not_in_cons' : forall (X : Type) (x y : X) l, ~ In x (y :: l) -> x <> y /\ ~ In x l.
Proof. intros X x y l H; split; intro; apply H; simpl; auto. Qed.

Ltac pose_new H :=
  let T := type of H in
  lazymatch goal with
  | _ : T |- _ => fail
  | _ => pose proof H
  end.

(* normalise list membership / NoDup / mem_le over ++ and :: *)
Ltac lnorm :=
  repeat match goal with
         | H : bspec _ _ _ _ |- _ => destruct H
         | H : NoDup (_ ++ _) |- _ => apply NoDup_app_iff in H; destruct H as (? & ? & ?)
         | H : NoDup (_ :: _) |- _ => apply NoDup_cons_iff in H; destruct H
         | H : mem_le _ (_ ++ _) |- _ => apply mem_le_app in H; destruct H
         | H : mem_le _ (_ :: _) |- _ => apply mem_le_cons in H; destruct H
         | H : ~ In _ (_ ++ _) |- _ => apply not_in_app in H
         | H : ~ In _ (_ :: _) |- _ => apply not_in_cons' in H
         | H : In _ (_ ++ _) |- _ => apply in_app_or in H
         | H : In _ (_ :: _) |- _ => simpl in H
         | H : In _ [] |- _ => destruct H
         | H : _ \/ _ |- _ => destruct H
         | H : _ /\ _ |- _ => destruct H
         end.

(* saturate: instantiate the inclusion and bound facts at the known memberships *)
Ltac lsat :=
  repeat match goal with
         | H : In ?x ?L, HI : forall b, In b ?L -> _ |- _ => pose_new (HI x H)
         | H : In ?x ?L, HM : mem_le _ ?L |- _ => pose_new (HM x H)
         end.

Ltac lfin :=
  subst;
  try lia;
  try solve [exfalso; eauto with datatypes];
  try solve [left; simpl; repeat (rewrite in_app_iff); simpl; tauto];
  try solve [right; lia];
  try solve [simpl; repeat (rewrite in_app_iff); simpl; tauto].

(* two rounds: a saturation step can produce a disjunction or a membership in an append that lnorm has to split again *)
Ltac lsolve := lnorm; lsat; lnorm; lsat; lnorm; lfin.

Ltac bspec_tac :=
  lnorm; split;
  [ repeat (rewrite NoDup_app_iff || rewrite NoDup_cons_iff || rewrite in_app_iff); simpl;
    repeat match goal with |- _ /\ _ => split | |- ~ _ => intro | |- NoDup [] => constructor end;
    auto; intros; lsolve
  | intros; lsolve ].

Lemma bspec_nil : forall R m, bspec R m m [].
Proof. intros; split; [constructor | intros b []]. Qed.

Lemma bspec_app : forall T R1 R2 m m1 m2 L1 L2,
  bspec R1 m m1 L1 -> bspec R2 m1 m2 L2 -> m <= m1 -> m1 <= m2 ->
  NoDup (R1 ++ R2) -> mem_le T (R1 ++ R2) -> T <= m ->
  bspec (R1 ++ R2) m m2 (L1 ++ L2).
Proof. intros. bspec_tac. Qed.

Lemma bspec_weaken : forall R R' m m' L, bspec R m m' L -> incl R R' -> bspec R' m m' L.
Proof.
  intros R R' m m' L [A B] I; split; auto. intros b Hb. destruct (B b Hb); auto.
Qed.
Lemma bspec_widen : forall R m0 m m' m1 L, bspec R m m' L -> m0 <= m -> m' <= m1 -> bspec R m0 m1 L.
Proof.
  intros R m0 m m' m1 L [A B] L1 L2; split; auto. intros b Hb. destruct (B b Hb); auto. right; lia.
Qed.

Lemma bspec_cons_fresh : forall T R m m' L,
  bspec R (m + 1) m' L -> mem_le T R -> T <= m -> m + 1 <= m' -> bspec R m m' ((m + 1) :: L).
Proof. intros. bspec_tac. Qed.

Lemma bspec_cons_keep : forall T R v m m' L,
  bspec R m m' L -> NoDup (v :: R) -> mem_le T (v :: R) -> T <= m -> bspec (v :: R) m m' (v :: L).
Proof. intros. bspec_tac. Qed.

(* NoDup / mem_le side conditions of sub-lists *)
Ltac ndsolve :=
  repeat match goal with
         | H : NoDup (_ ++ _) |- _ => apply NoDup_app_iff in H; destruct H as (? & ? & ?)
         | H : NoDup (_ :: _) |- _ => apply NoDup_cons_iff in H; destruct H
         | H : mem_le _ (_ ++ _) |- _ => apply mem_le_app in H; destruct H
         | H : mem_le _ (_ :: _) |- _ => apply mem_le_cons in H; destruct H
         | |- NoDup (_ ++ _) => apply NoDup_app_iff; split; [|split]
         | |- NoDup (_ :: _) => apply NoDup_cons_iff; split
         | |- NoDup [] => constructor
         | |- mem_le _ (_ ++ _) => apply mem_le_app; split
         | |- mem_le _ (_ :: _) => apply mem_le_cons; split
         | |- mem_le _ [] => apply mem_le_nil
         end; auto; try lia;
  try (intros;
       repeat match goal with
              | |- ~ _ => intro
              | H : In _ (_ ++ _) |- _ => apply in_app_or in H; destruct H
              | H : In _ (_ :: _) |- _ => destruct H; [subst|]
              | H : In _ [] |- _ => destruct H
              end; solve [eauto 6 with datatypes | exfalso; eauto 6 with datatypes]).
