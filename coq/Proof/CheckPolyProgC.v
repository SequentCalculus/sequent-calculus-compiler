(* C15, program level, programs WITH type parameters and type arguments: a program with
   identifier-like names that satisfies the declarative typing rules is accepted by the checker
   (the code since fix d524b1f); collecting the instances cannot hit the internal panic. *)
From Coq Require Import List ZArith String Bool Permutation Lia.
From SCC Require Import Base.Sexp Lang.SynUtil Lang.FunSyn Model.Check Sem.FunTyping
  Proof.FunInd Proof.FunEq Proof.CheckAnn Proof.TypingReject Proof.CheckBuild Proof.CheckMono Proof.CheckMonoSound
  Proof.CheckMonoProg Proof.CheckMonoComplete Proof.CheckMonoProgC
  Proof.PrintInj Proof.CheckPoly Proof.CheckPolySound Proof.CheckPolyProg Proof.CheckPolyComplete Proof.CheckDecls.
Import ListNotations.
Open Scope list_scope.

Lemma pwf_world_of_prog : forall p, has_type_b p = true ->
  pwf_world (tdecls (fpdecls p)) (fdefs (fpdecls p)).
Proof.
  intros p H. unfold has_type_b in H. apply andb_true_iff in H. destruct H as [H Hd].
  apply andb_true_iff in H. destruct H as [_ Hdecl]. unfold decls_ok in Hdecl. rewrite forallb_forall in Hdecl, Hd.
  constructor.
  - intros td s Hin Hs. specialize (Hdecl td Hin). unfold tdecl_ok in Hdecl.
    apply andb_true_iff in Hdecl. destruct Hdecl as [_ Hx]. rewrite forallb_forall in Hx. specialize (Hx s Hs).
    unfold xsig_ok in Hx. apply andb_true_iff in Hx. destruct Hx as [Ha Hr].
    split; [exact Ha|]. intros r Er. rewrite Er in Hr. exact Hr.
  - intros d Hin. specialize (Hd d Hin). unfold def_ok in Hd.
    apply andb_true_iff in Hd. destruct Hd as [Hd _]. apply andb_true_iff in Hd. destruct Hd as [Hd Hr].
    apply andb_true_iff in Hd. destruct Hd as [_ Hc]. split; assumption.
Qed.

Section DefsPC.
  Variable ts : list tdecl.
  Variable fs : list fdef.
  Hypothesis W : poly_world ts fs.
  Hypothesis WF : pwf_world ts fs.

  Lemma ctx_check_pok : forall c st, ctx_wf ts c = true -> tables ts fs st -> pinv ts st ->
    exists st', ctx_check c st = COk st' /\ pinv ts st' /\ same_templates st st'.
  Proof.
    induction c as [|b r IH]; intros st Hw Tb I; simpl in *.
    - exists st. auto using same_templates_refl.
    - apply andb_true_iff in Hw. destruct Hw as [Hwb Hwr].
      destruct (ty_check_ok ts fs W _ st Hwb Tb I) as [st1 [H1 [I1 [S1 _]]]]. rewrite H1. simpl.
      destruct (IH st1 Hwr (tables_same _ _ _ _ Tb S1) I1) as [st2 [H2 [I2 S2]]].
      exists st2. splits; frame.
  Qed.

  Lemma main_ret_check_pok : forall d st, main_ret_ok d = true -> tables ts fs st -> pinv ts st ->
    exists st', main_ret_check d st = COk st' /\ pinv ts st' /\ same_templates st st'.
  Proof.
    intros d st Hm Tb I. unfold main_ret_check. unfold main_ret_ok in Hm.
    destruct (String.eqb (fdname d) "main").
    - apply fty_eqb_eq in Hm. rewrite Hm.
      destruct (check_equality_ok ts fs W FI64 st eq_refl Tb I) as [st' [H [I' [S _]]]]. eauto.
    - exists st. auto using same_templates_refl.
  Qed.

  Lemma def_check_pok : forall d st, def_ok ts fs d = true -> term_names_ok (fdbody d) = true ->
    tables ts fs st -> pinv ts st ->
    exists d' st', def_check_gen true d st = COk (d', st') /\ pinv ts st' /\ same_templates st st'.
  Proof.
    intros d st Hok Hmb Tb I. unfold def_ok in Hok.
    apply andb_true_iff in Hok. destruct Hok as [Hok Hk]. apply andb_true_iff in Hok. destruct Hok as [Hok Hwr].
    apply andb_true_iff in Hok. destruct Hok as [Hnd Hwc]. apply andb_true_iff in Hnd. destruct Hnd as [Hmain Hnd].
    assert (Hrun : exists d' st', def_check_gen true d st = COk (d', st')).
    { unfold def_check_gen. unfold ctx_no_dups. rewrite nodup_ctx_no_dups_go; [|assumption|intros ? ? []]. simpl.
      destruct (ctx_check_pok _ st Hwc Tb I) as [st1 [H1 [I1 S1]]]. rewrite H1. simpl.
      destruct (ty_check_ok ts fs W _ st1 Hwr (tables_same _ _ _ _ Tb S1) I1) as [st2a [H2 [I2a [S2a _]]]].
      rewrite H2. simpl. assert (S02a : same_templates st st2a) by frame.
      destruct (main_ret_check_pok d st2a Hmain (tables_same _ _ _ _ Tb S02a) I2a) as [st2 [H2m [I2 S2]]].
      rewrite H2m. simpl. assert (S02 : same_templates st st2) by frame.
      destruct (check_term_pcomplete ts fs W WF (fdbody d) st2 (fdctx d) (fdret d) Hmb (tables_same _ _ _ _ Tb S02) I2 Hwc Hwr Hk)
        as [b' [st3 H3]].
      rewrite H3. simpl. eauto. }
    destruct Hrun as [d' [st' Hrun]]. exists d', st'. split; [assumption|].
    destruct (def_check_gen_psound ts fs W true d st d' st' (ctx_wf_names_ok ts fs W _ Hwc) (wf_ty_names_ok ts fs W _ Hwr) Hmb Tb I Hrun)
      as [_ [I' [S' _]]]. auto.
  Qed.

  Lemma check_defs_pok : forall ds st,
    (forall d, In d ds -> def_ok ts fs d = true /\ term_names_ok (fdbody d) = true) ->
    tables ts fs st -> pinv ts st ->
    exists ds' st', check_defs_gen true ds st = COk (ds', st') /\ pinv ts st'.
  Proof.
    induction ds as [|d r IH]; intros st H Tb I; simpl.
    - exists [], st. auto.
    - destruct (H d (or_introl eq_refl)) as [Hok Hb].
      destruct (def_check_pok d st Hok Hb Tb I) as [d' [st1 [H1 [I1 S1]]]]. rewrite H1. simpl.
      destruct (IH st1 (fun d0 Hd0 => H d0 (or_intror Hd0)) (tables_same _ _ _ _ Tb S1) I1) as [r' [st2 [H2 I2]]].
      rewrite H2. simpl. eauto.
  Qed.
End DefsPC.

Lemma collect_ctors_pok : forall st sfx xs, (forall x, In x xs -> ahas (st_ctors st) (x ++ sfx)%string = true) ->
  exists r, collect_ctors st sfx xs = COk r.
Proof.
  induction xs as [|x r IH]; intros H; simpl; [eauto|].
  destruct (ahas_true _ _ (H x (or_introl eq_refl))) as [sg ->].
  destruct (IH (fun y Hy => H y (or_intror Hy))) as [r' ->]. simpl. eauto.
Qed.
Lemma collect_dtors_pok : forall st sfx xs, (forall x, In x xs -> ahas (st_dtors st) (x ++ sfx)%string = true) ->
  exists r, collect_dtors st sfx xs = COk r.
Proof.
  induction xs as [|x r IH]; intros H; simpl; [eauto|].
  destruct (ahas_true _ _ (H x (or_introl eq_refl))) as [[sg rt] ->].
  destruct (IH (fun y Hy => H y (or_intror Hy))) as [r' ->]. simpl. eauto.
Qed.
Lemma collect_types_pok : forall ts st, pinv ts st -> forall l, (forall k v, In (k, v) l -> aget (st_types st) k = Some v) ->
  exists r, collect_types st l = COk r.
Proof.
  intros ts st I l. induction l as [|[name [[pol targs] xs]] r IH]; intros H; simpl; [eauto|].
  pose proof (H name _ (or_introl eq_refl)) as Hg.
  destruct (IH (fun k v Hin => H k v (or_intror Hin))) as [[das cos] Hr].
  destruct pol.
  - destruct (collect_ctors_pok st (print_targs targs) xs) as [cs Hc].
    { intros x Hx. exact (pi_xtors_of _ _ I _ _ _ _ x Hg Hx). }
    rewrite Hc. simpl. rewrite Hr. simpl. eauto.
  - destruct (collect_dtors_pok st (print_targs targs) xs) as [cs Hc].
    { intros x Hx. exact (pi_xtors_of _ _ I _ _ _ _ x Hg Hx). }
    rewrite Hc. simpl. rewrite Hr. simpl. eauto.
Qed.

Theorem check_complete_poly : forall p,
  prog_names_ok p = true -> has_type_b p = true -> exists q, check p = COk q.
Proof.
  intros p Hm Ht. pose proof Ht as Ht0. unfold has_type_b in Ht.
  apply andb_true_iff in Ht. destruct Ht as [Ht Hdefs]. apply andb_true_iff in Ht. destruct Ht as [Hn Hdecls].
  assert (Hps : forall td, In td (tdecls (fpdecls p)) ->
            nodup (td_params td) = true /\ forallb (fun q => negb (is_some (find_type (tdecls (fpdecls p)) q))) (td_params td) = true
            /\ forallb (xsig_ok (tdecls (fpdecls p)) (td_params td)) (td_xtors td) = true).
  { intros td Hin. unfold decls_ok in Hdecls. rewrite forallb_forall in Hdecls. specialize (Hdecls td Hin).
    unfold tdecl_ok in Hdecls. apply andb_true_iff in Hdecls. destruct Hdecls as [Hd H3].
    apply andb_true_iff in Hd. destruct Hd as [H1 H2]. auto. }
  destruct (build_symbol_table_ok p Hn) as [st Hb]; [intros td Hin; destruct (Hps td Hin) as [? [? ?]]; auto|].
  destruct (build_symbol_table_spec p st Hb) as [Tb [_ [Hty [Hc [Hd _]]]]].
  pose proof (poly_world_of_prog p Hm Hn (fun td Hin => proj1 (Hps td Hin))) as W.
  pose proof (pwf_world_of_prog p Ht0) as WF.
  unfold check, check_gen. rewrite Hb. simpl. unfold check_with_table_gen.
  rewrite (check_type_decls_ok_conv _ _ st (fpdecls p) Tb); [|intros td Hin; destruct (Hps td Hin) as [? [? ?]]; auto|intros td Hin; destruct (Hps td Hin) as [? [? ?]]; auto]. simpl.
  rewrite defs_of_fdefs.
  destruct (check_defs_pok _ _ W WF (fdefs (fpdecls p)) st) as [ds' [st1 [H1 I1]]]; [|exact Tb|apply pinv_start; assumption|].
  { intros d Hin. rewrite forallb_forall in Hdefs. split; [auto|]. eapply names_def_body; eassumption. }
  rewrite H1. simpl.
  destruct (collect_types_pok _ st1 I1 (st_types st1)) as [[das cos] Hcol].
  { intros k v Hin. apply In_aget; [apply (pi_nodup _ _ I1)|assumption]. }
  rewrite Hcol. simpl. eauto.
Qed.

(* the internal panic of check_with_table ("Couldn't find constructor .. in symbol_table") is
   unreachable: once the definitions have been checked, every instance in the table has all its
   xtor instances, so collecting the instances succeeds (before and after fix d524b1f) *)
Theorem collect_cannot_panic : forall eager p st defs st1,
  prog_names_ok p = true -> build_symbol_table p = COk st ->
  check_defs_gen eager (defs_of (fpdecls p)) st = COk (defs, st1) ->
  exists das cos, collect_types st1 (st_types st1) = COk (das, cos).
Proof.
  intros eager p st defs st1 Hm Hb Hdefs.
  destruct (build_symbol_table_spec p st Hb) as [Tb [Hn [Hty [Hc [Hd Hps]]]]].
  pose proof (poly_world_of_prog p Hm Hn (fun td Hin => proj1 (Hps td Hin))) as W.
  rewrite defs_of_fdefs in Hdefs.
  assert (Hnm : forall d, In d (fdefs (fpdecls p)) ->
            ctx_names_ok (fdctx d) = true /\ ty_names_ok (fdret d) = true /\ term_names_ok (fdbody d) = true).
  { intros d Hin. destruct (PW_defs _ _ W d Hin). splits; auto. eapply names_def_body; eassumption. }
  destruct (check_defs_gen_psound _ _ W eager _ st defs st1 Hnm Tb (pinv_start _ st Hty Hc Hd) Hdefs) as [_ [I1 _]].
  destruct (collect_types_pok _ st1 I1 (st_types st1)) as [[das cos] Hcol].
  { intros k v Hin. apply In_aget; [apply (pi_nodup _ _ I1)|assumption]. }
  eauto.
Qed.
