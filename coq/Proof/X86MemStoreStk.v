From SCC Require Import Sem.X86Sem Proof.X86Mem Proof.X86StackFrame Proof.X86MemStoreFull.

Lemma stack_frame_sbtf s s' sp : same_but_temp_free s s' -> stack_frame s s' sp.
Proof. intros (_ & E & _). now apply stack_frame_eq. Qed.
