(* C06, heap statements:
     P03                 every block of the machine's abstract heap has no or exactly three pointer slots
                         (an invariant: only `alloc` writes slots, always three);
     obj_fields_words    the pointer slots `Heap.obj_fields` of a represented object ARE the words at the
                         slot addresses `waddrs` (so the pointers the instrumented machine gives to loaded
                         variables are the words the code loads);
     slots_agree         the words at the slot addresses of a block are its pointer slots (what `xrep_frame`
                         of Proof/HRep.v assumes of the heap words). *)
From Coq Require Import List ZArith NArith String Bool Lia Permutation.
From SCC Require Import Proof.X86Mem Proof.X86MemFrame Proof.X86MemStoreFull.
From SCC Require Import Lang.AxSyn Sem.AxSem Sem.AxHeap Sem.X86Sem Proof.X86HeapDefs Proof.X86HeapCongr.
From SCC Require Model.Heap Proof.HeapMore Proof.HeapTrace Proof.HeapRep Proof.HeapRepAlloc Proof.HeapRepLoad.
Import ListNotations.
Open Scope Z_scope.

Notation reach := HeapTrace.reach.

Definition P03 (hs : Heap.st) : Prop := forall x, Heap.ps (Heap.m hs x) = [] \/ List.length (Heap.ps (Heap.m hs x)) = 3%nat.
Lemma P03_P3 hs : P03 hs -> P3 hs.
Proof. intros H x. destruct (H x) as [E|E]; rewrite E; cbn; lia. Qed.
Lemma P03_ext hs hs' : (forall x, Heap.ps (Heap.m hs' x) = Heap.ps (Heap.m hs x)) -> P03 hs -> P03 hs'.
Proof. intros H K x. rewrite H. apply K. Qed.
Lemma P03_alloc hs P : P03 hs -> List.length P = 3%nat -> P03 (snd (Heap.alloc P hs)).
Proof. intros K HP x. rewrite HeapRepAlloc.alloc_ps. destruct (x =? Heap.heap hs); [now right|apply K]. Qed.
Lemma P03_store_other : forall f rest link hs, P03 hs -> P03 (snd (Heap.store_other f rest link hs)).
Proof.
  induction f as [|f IH]; intros rest link hs K; [exact K|].
  destruct rest as [|x r]; [exact K|]. rewrite X86MemStoreChain.store_other_step by discriminate.
  apply IH. apply P03_alloc; [exact K|]. apply len_block2.
Qed.
Lemma P03_alloc_object hs fields : P03 hs -> P03 (snd (Heap.alloc_object fields hs)).
Proof.
  intros K. destruct fields as [|x r]; [exact K|]. rewrite alloc_object_step by discriminate.
  apply P03_store_other. apply P03_alloc; [exact K|]. apply len_block3.
Qed.
Lemma P03_step hs o : P03 hs -> machine_op o -> P03 (Heap.step hs o).
Proof.
  intros K Ho. destruct o; cbn [machine_op] in Ho; try contradiction; cbn [Heap.step].
  - eapply P03_ext; [|exact K]. intros x. apply HeapMore.share_ps.
  - eapply P03_ext; [|exact K]. intros x. apply HeapMore.erase_ps.
  - now apply P03_alloc_object.
  - eapply P03_ext; [|exact K]. intros x. apply HeapRepLoad.load_object_ps.
Qed.
Lemma P03_hrun : forall ops hs, P03 hs -> Forall machine_op ops -> P03 (hrun ops hs).
Proof.
  unfold hrun. induction ops as [|o ops IH]; intros hs K Hops; cbn [fold_left]; [exact K|].
  inversion Hops as [|? ? Ho Hops']; subst. apply IH; [|exact Hops']. now apply P03_step.
Qed.
Lemma P03_init base : P03 (Heap.init base).
Proof. intros x. now left. Qed.

(* agreement of the pointer slots with the words *)
Definition slots_agree (mm : Heap.mem) (w : Z -> Z) : Prop :=
  forall b, is_blk b -> pad3 (Heap.ps (mm b)) = [w (b + 16); w (b + 32); w (b + 48)].
Lemma heq_slots_agree F s hs : heq (abs_heap F s) hs -> slots_agree (Heap.m hs) (hword s).
Proof. intros H b Hb. exact (proj1 (heq_abs_ps F s hs b H Hb)). Qed.

Lemma pad3_eq_in l x0 x1 x2 c : pad3 l = [x0; x1; x2] -> (c = x0 \/ c = x1 \/ c = x2) -> c <> 0 -> In c l.
Proof.
  unfold pad3. intros E H Hc. inversion E; subst.
  destruct l as [|a [|b [|d r]]]; cbn in *; intuition congruence.
Qed.
Lemma pad3_nz_len3 hs b x0 x1 x2 : P03 hs -> pad3 (Heap.ps (Heap.m hs b)) = [x0; x1; x2] -> (x0 <> 0 \/ x1 <> 0 \/ x2 <> 0) ->
  Heap.ps (Heap.m hs b) = [x0; x1; x2].
Proof.
  intros K E H. destruct (K b) as [E0|E3].
  - rewrite E0 in E. cbn in E. inversion E; subst. lia.
  - rewrite pad3_len3 in E by exact E3. exact E.
Qed.

Section Words.
Variable hs : Heap.st.
Variable w : Z -> Z.
Hypothesis AG : slots_agree (Heap.m hs) w.
Hypothesis K03 : P03 hs.

(* the blocks of a chain of the words are reachable from its head in the abstract heap *)
Lemma wblocks_reach : forall k q, Forall is_blk (wblocks k w q) -> forall b, In b (wblocks k w q) -> reach (Heap.m hs) [q] b.
Proof.
  induction k as [|k IH]; intros q FB b Hb; cbn [wblocks] in *; inversion FB as [|? ? Hq FB']; subst.
  - destruct Hb as [<-|[]]. apply HeapTrace.reach_src; [now left|]. apply is_blk_pos in Hq. lia.
  - assert (Hq0 : q <> 0) by (apply is_blk_pos in Hq; lia).
    destruct Hb as [<-|Hb]; [apply HeapTrace.reach_src; [now left|exact Hq0]|].
    set (nx := w (q + 48)) in *.
    assert (Hn : is_blk nx) by (destruct k; cbn [wblocks] in FB'; inversion FB'; assumption).
    assert (Hn0 : nx <> 0) by (apply is_blk_pos in Hn; lia).
    eapply HeapRep.reach_trans; [|exact (IH nx FB' b Hb)].
    intros r [<-|[]] _. eapply HeapTrace.reach_slot; [apply HeapTrace.reach_src; [now left|exact Hq0]| |exact Hn0].
    eapply pad3_eq_in; [exact (AG q Hq)|right; right; reflexivity|exact Hn0].
Qed.

(* a slot address of a chain holds a pointer slot of one of its blocks *)
Lemma waddr_slot k q a : Forall is_blk (wblocks k w q) -> In a (waddrs k w q) -> w a <> 0 ->
  exists b, In b (wblocks k w q) /\ In (w a) (Heap.ps (Heap.m hs b)).
Proof.
  intros FB Ha Hn. destruct (waddrs_in w k q a Ha) as (b & Hb & Hab). exists b. split; [exact Hb|].
  rewrite Forall_forall in FB. pose proof (AG b (FB b Hb)) as E.
  eapply pad3_eq_in; [exact E| |exact Hn]. destruct Hab as [->|[->| ->]]; auto.
Qed.

(* obj_fields = the words along waddrs, when the last block is not empty *)
Lemma obj_fields_words : forall k q, Forall is_blk (wblocks k w q) ->
  (2 * k < List.length (Heap.obj_fields k (Heap.m hs) q))%nat ->
  Heap.obj_fields k (Heap.m hs) q = map w (waddrs k w q).
Proof.
  induction k as [|k IH]; intros q FB L; cbn [wblocks Heap.obj_fields waddrs map app] in *; inversion FB as [|? ? Hq FB']; subst.
  - destruct (K03 q) as [E|E]; [rewrite E in L; cbn in L; lia|].
    rewrite <- (AG q Hq). now rewrite pad3_len3.
  - set (nx := w (q + 48)) in *.
    assert (Hn : is_blk nx) by (destruct k; cbn [wblocks] in FB'; inversion FB'; assumption).
    assert (Hn0 : nx <> 0) by (apply is_blk_pos in Hn; lia).
    pose proof (pad3_nz_len3 hs q _ _ _ K03 (AG q Hq) ltac:(right; right; exact Hn0)) as E.
    unfold Heap.fields_of, Heap.link_of in *. rewrite E in *. cbn [firstn skipn app nth List.length] in *.
    f_equal. f_equal. apply IH; [exact FB'|subst nx; lia].
Qed.
End Words.

Lemma nlinks_bound n : (0 < n)%nat -> (2 * Heap.nlinks n < n)%nat.
Proof.
  intros H. unfold Heap.nlinks. destruct (Nat.leb_spec n 3); [lia|].
  assert (D := Nat.div_mod (n - 3 + 1) 2 ltac:(lia)).
  assert (M := Nat.mod_upper_bound (n - 3 + 1) 2 ltac:(lia)). lia.
Qed.

(* the pointers the instrumented machine gives to the variables loaded from a represented object *)
Lemma load_ptrs_words F s hs lk fs q :
  heq (abs_heap F s) hs -> P03 hs -> fs <> [] ->
  HeapRep.rep_flds lk (Heap.m hs) fs q ->
  Forall is_blk (wblocks (Heap.nlinks (List.length fs)) (hword s) q) ->
  load_ptrs hs (List.length fs) q =
    map (hword s) (skipn (List.length (waddrs (Heap.nlinks (List.length fs)) (hword s) q) - List.length fs)
                         (waddrs (Heap.nlinks (List.length fs)) (hword s) q)).
Proof.
  intros HQ K NE RF FB. inversion RF as [|fs0 q0 j pl _ Hlk HL HF RS]; subst; [congruence|].
  pose proof (HeapRep.reps_length _ _ _ _ RS) as Lpl.
  unfold load_ptrs. rewrite <- Hlk in *.
  rewrite (obj_fields_words hs (hword s) (heq_slots_agree F s hs HQ) K (lk q) q FB).
  - unfold Heap.lastn. rewrite map_length, <- skipn_map. reflexivity.
  - rewrite HF, app_length, repeat_length, Lpl. pose proof (nlinks_bound (List.length fs)). rewrite <- Hlk in *.
    assert (0 < List.length fs)%nat by (destruct fs; [congruence|cbn; lia]). lia.
Qed.
