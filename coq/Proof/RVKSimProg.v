(* C08, forward simulation for HEAP statements: the induction over the fuel of the instrumented machine.
   Every step of `hexec` (Sem/AxHeap.v) is matched by the execution of the statement's code under `hrel`;
   progress (the machine does not get stuck on a linearly checked statement) is part of the proof.
   One lemma `exec_<form>` per statement form over the claim `sim fuel s`, then the induction over the fuel.
   The counterpart of Proof/X86HSimProg.v; the conclusion is in the `rfin` form of Proof/RVSimAddr.v
   (the run from the statement's code ends at `cleanup` with the machine's observation).
   Objects of any number of fields, all statement forms.  The conclusion has a second conjunct: the code
   of the statement the machine executes contains an instruction of non-zero size.  That is what makes the landing point
   of an Invoke exist (Proof/RVKClo.hclo_ok promises it under this condition only: a clause code made of labels only - an
   empty Switch behind an empty load - has none, and the RISC-V routine has no epilogue instruction behind `cleanup`); it is
   proved by the same induction: every statement form emits an instruction except Switch, a Switch with two or more clauses
   emits the table dispatch, with one clause the claim is the induction hypothesis for the clause body, and with none the
   machine cannot be there (the scrutinee's tag is a declared constructor by `hrel`). *)
From Coq Require Import List ZArith NArith String Bool Lia FMapPositive Permutation.
From SCC Require Import Base.Sexp Lang.AxSyn Sem.AxSem Sem.AxHeap Model.ParMoves Model.Backend Model.RV Sem.RVSem Sem.RVWf
     Model.Linearize Model.LinCheck Generated.Constants Proof.LinBasics Proof.LinTyping Proof.LinMachine
     Proof.RVSel Proof.SubstGraph Proof.SubstBackends Proof.RVSubst Proof.RVSimAddr Proof.BackendInv Proof.RVSimRel Proof.RVSimStmt
     Proof.RVSimClo Proof.RVHeapAbs Proof.RVHDefs Proof.RVHMem Proof.RVHBridge Proof.HRep Proof.RVKSimRel Proof.RVKSimStmt Proof.RVKSimSubst
     Proof.RVKSimStore Proof.RVKSimLoad Proof.RVHLayout Proof.RVKLayout Proof.RVKFrag Proof.RVKClo Proof.X86HAnn
     Proof.RVKSimProgA Proof.RVKSimHeapB Proof.RVKSimHeapC.
From SCC Require Model.Heap Proof.HeapMore Proof.HeapTrace Proof.HeapRep Proof.AxHeapTyping Proof.AxHeapSafe Proof.X86HSimProg Proof.A64HSimProg.
Import ListNotations.
Open Scope Z_scope.
Open Scope list_scope.

Notation has_in_ids := X86HSimProg.has_in_ids.
Notation find_clause_in := X86HSimProg.find_clause_in.
Notation hsplit_total := X86HSimProg.hsplit_total.
Notation map_h_id_app := X86HSimProg.map_h_id_app.
Notation vars_ctx_of_env := A64HSimProg.vars_ctx_of_env.

(* the machine splits off the last entries exactly when the context has them *)

Lemma clauses_k_in cls cl : clauses_k cls = true -> In cl cls -> stmt_k (cl_body cl) = true.
Proof. unfold clauses_k. rewrite forallb_forall. intros H Hin. exact (H cl Hin). Qed.

Section MainH.
Variable im : image.
Variable p : prog.
Variable stop : positive.
Hypothesis IMG : rimg_ok im.
Hypothesis FWD : fwd_ok im.
Hypothesis EVEN : forall pc a, PM.find pc (addr_of im) = Some a -> a mod 2 = 0.
Hypothesis SMALL : forall pc a, PM.find pc (addr_of im) = Some a -> a < 4611686018427387904 - 32.
Hypothesis ENC : forall pc c, PM.find pc (code im) = Some c -> instr_wf c = true.
Hypothesis STOPL : find_label (labels im) "cleanup" = Some stop.
Hypothesis STOPC : exists l, PM.find stop (code im) = Some (LAB l).
Hypothesis ENDC : PM.find (Pos.succ stop) (code im) = None.
Hypothesis DEFS : forall d, In d (pdefs p) ->
  exists pcd lcd cd lcd', find_label (labels im) (show_ident (dname d) +++ "_") = Some pcd /\
    (exists a, PM.find pcd (code im) = Some (LAB (show_ident (dname d) +++ "_")) /\ PM.find pcd (addr_of im) = Some a) /\
    rcs (ptypes p) (dbody d) (dctx d) lcd = Ok (cd, lcd') /\ placed im (Pos.succ pcd) cd.
Hypothesis LP : lin_check_prog p = true.
Hypothesis ANN : ann_check_prog p = true.
Hypothesis FRG : forall d, In d (pdefs p) -> stmt_k (dbody d) = true.
Local Notation CLO := (hclo_ok im p stop).
Local Notation hrel := (hrel (ptypes p) CLO).
Local Notation hinv := (hinv p).

Lemma LIN d : In d (pdefs p) -> lin_check (sigs_of p) (dctx d) (dbody d) = true.
Proof. unfold lin_check_prog in LP. rewrite forallb_forall in LP. exact (LP d). Qed.
Lemma ANNd d : In d (pdefs p) -> ann_check (dctx d) (dbody d) = true.
Proof. unfold ann_check_prog in ANN. rewrite forallb_forall in ANN. exact (ANN d). Qed.

Ltac hstep_with HS G := cbn [hexec hc_env hc_heap hc_stmt] in G |- *; rewrite HS in G |- *.
Ltac nz_tail H := first [exact H | apply has_nz_app_r; nz_tail H].
Lemma nz1 (c : rcode) r : isize c <> 0 -> has_nz (c :: r).
Proof. intros H. exists O, c. auto. Qed.

(* the entries of a context suffix: the machine splits them off, they carry the names of the suffix *)
Lemma hrel_suffix c0 tl he hs st : hrel (c0 ++ tl) he hs st ->
  exists he0 fs, AxSem.split_last (List.length tl) he = Some (he0, fs) /\ he = he0 ++ fs /\
                 List.length he0 = List.length c0 /\ List.length fs = List.length tl /\ env_ids (erase_env fs) = ids tl.
Proof.
  intros R. pose proof (hrel_length R) as LEN. rewrite app_length in LEN.
  destruct (hsplit_total he (List.length tl)) as (he0 & fs & SL & -> & LF); [lia|].
  rewrite app_length in LEN. assert (L0 : List.length he0 = List.length c0) by lia.
  exists he0, fs. repeat (split; [assumption||reflexivity|]).
  pose proof (hr_ids R) as Ids. unfold env_ids, ids, erase_env in *. rewrite !map_app in Ids.
  now apply app_inv_len in Ids as [_ Ids]; [|rewrite !map_length].
Qed.

(* what the heap statements take from the invariant *)
Lemma hinv_facts he hs s : hinv he hs s ->
  (exists hl fl cl, InvA HEAP_BASE hs (roots he) hl fl cl) /\ P03 hs /\ Heap.frontier hs + 64 <= LIMIT /\
  (forall en, In en he -> chi_of (h_val en) = Ext -> h_ptr en = 0).
Proof.
  intros HI. split; [exact (hinv_invA p _ _ _ HI)|]. split; [exact (hi_p03 _ _ _ _ HI)|].
  split; [exact (hinv_fit0 p _ _ _ HI)|exact (hinv_ptrs_ok p _ _ _ HI)].
Qed.

(* the claim for one statement: its code, run under `hrel`, ends as the machine's run with this much fuel does, and
   contains an instruction of non-zero size *)
Definition sim (fuel : nat) (s : stmt) : Prop := forall c he hs tr st pc code lc lc',
  stmt_k s = true -> lin_check (sigs_of p) c s = true -> ann_check c s = true ->
  rcs (ptypes p) s c lc = Ok (code, lc') -> placed im pc code ->
  hrel c he hs st -> map h_id he = vars c -> hinv he hs s ->
  SimFrag.not_oof (fst (fst (hexec fuel p (mkhc he hs s) [] tr))) ->
  rfin im stop pc st (fst (fst (hexec fuel p (mkhc he hs s) [] tr))) /\ has_nz code.

(* one lemma per statement form: the machine's step, the code of the step under the relation, then the claim for the
   statement the machine continues with *)
Lemma exec_substitute fuel re next : (forall s, sim fuel s) -> sim (S fuel) (Substitute re next).
Proof.
  intros IH c he hs tr st pc code lc lc' FR LC AN CS PL R NM HI G.
  destruct (hinv_facts _ _ _ HI) as ((hl & fl & cl0 & IA) & K03 & FIT0 & EX). pose proof (hrel_length R) as LEN.
  cbn [stmt_k] in FR.
  cbn [lin_check] in LC. apply andb_true_iff in LC as [_ LC]. apply andb_true_iff in LC as [LCs LCn].
  cbn [ann_check] in AN.
  destruct (hsubst_total he re) as (he' & HSB).
  { intros q Hq. rewrite (hr_ids R). rewrite forallb_forall in LCs. eapply has_in_ids. exact (LCs q Hq). }
  assert (HS : hstep p he hs (Substitute re next) = HStep (subst_ops he re) he' next None) by (cbn [hstep]; now rewrite HSB).
  hstep_with HS G. cbn [push_print] in G |- *.
  destruct (cs_substitute _ _ _ _ _ _ _ _ CS) as (c1 & lc1 & c2 & c3 & WC & CE & NX & ->). cbn [b_mark rv_backend app] in PL.
  assert (NDn : NoDup (new_ids re)) by (rewrite <- ids_new; exact (SimFrag.lin_nodup _ _ _ LCn)).
  rewrite app_assoc in PL. apply placed_app in PL as [PL2 PL3].
  destruct (hsim_substitute im (ptypes p) CLO c he hs st re he' c1 lc lc1 c2 pc hl fl cl0 R NDn) as (s' & X & R'); auto.
  { intros q Hq. rewrite forallb_forall in LCs. exact (LCs q Hq). }
  { eapply hrel_ctx_of; eauto. }
  { lia. }
  eassert (IHn : rfin im stop _ s' _ /\ has_nz c3).
  { eapply (IH next (map fst re) he' _ _ s'); eauto.
    + eapply hsubst_names; eauto.
    + eapply hinv_step; eauto. }
  destruct IHn as [Fin NZn]. split; [eapply star_rfin; eauto|nz_tail NZn].
Qed.

Lemma exec_call fuel label args : (forall s, sim fuel s) -> sim (S fuel) (Call label args).
Proof.
  intros IH c he hs tr st pc code lc lc' FR LC AN CS PL R NM HI G.
  pose proof (hrel_length R) as LEN.
  cbn [lin_check] in LC. apply andb_true_iff in LC as [_ LC].
  destruct (lookup_label (sigs_of p) label) as [ps|] eqn:LL; [|discriminate].
  destruct (SimFrag.lookup_label_find_def p label ps LL) as (d & FD & <-).
  destruct (SimFrag.bind_total (vars (dctx d)) (map snd (erase_env he))) as (e' & BD).
  { apply sig_match_iff, same_kt_length in LC. unfold vars, erase_env. rewrite !map_length. unfold hentry in *. lia. }
  assert (HS : hstep p he hs (Call label args) = HStep [] (attach e' (ptrs he)) (dbody d) None) by (cbn [hstep]; now rewrite FD, BD).
  hstep_with HS G. cbn [hrun fold_left rev_append push_print] in G |- *.
  unfold find_def in FD. apply find_some in FD as [IN EQ]. apply ident_eqb_eq in EQ. subst label.
  destruct (DEFS d IN) as (pcd & lcd & cdd & lcd' & FL & CLb & CSd & PLd).
  pose proof (sim_call im st _ _ _ _ _ _ _ pc pcd CS (proj1 PL) FL CLb) as X.
  eassert (IHn : rfin im stop _ st _ /\ has_nz cdd).
  { eapply (IH (dbody d) (dctx d) (attach e' (ptrs he)) hs _ st); try eassumption.
    + exact (FRG d IN).
    + exact (LIN d IN).
    + exact (ANNd d IN).
    + eapply hbind_rel; eauto. exact (SimFrag.lin_nodup _ _ _ (LIN d IN)).
    + rewrite attach_names. exact (SimFrag.bind_ids _ _ _ BD).
    + exact (hinv_step p LP _ _ _ _ _ _ _ HI HS). }
  destruct IHn as [Fin _]. split; [eapply star_rfin; eauto|].
  destruct (cs_call _ _ _ _ _ _ _ _ CS) as (-> & _). apply nz1. cbn; lia.
Qed.

Lemma exec_let fuel v t tag args next : (forall s, sim fuel s) -> sim (S fuel) (Let v t tag args next).
Proof.
  intros IH c he hs tr st pc code lc lc' FR LC AN CS PL R NM HI G.
  destruct (hinv_facts _ _ _ HI) as ((hl & fl & cl0 & IA) & K03 & FIT0 & EX). pose proof (hrel_length R) as LEN.
  cbn [stmt_k] in FR. pose proof FR as FRn.
  pose proof LC as LC0. cbn [lin_check] in LC. apply andb_true_iff in LC as [_ LC].
  destruct (split_lastn (List.length args) c) as [[c0 tl]|] eqn:SPL; [|discriminate].
  apply split_lastn_Some in SPL as [-> SPLn].
  apply andb_true_iff in LC as [LC LCn]. apply andb_true_iff in LC as [CM AO].
  apply ctx_match_Prop in CM as [IDS SKT].
  assert (TN : exists tn, ty_name t = Some tn).
  { unfold args_ok, lookup_xtor, type_xtors in AO. destruct t as [|tn]; [discriminate|]. cbn. eauto. }
  destruct TN as (tn & TN).
  destruct (hrel_suffix _ _ _ _ _ R) as (he0 & fs & SL & -> & L0 & LF & IDF). rewrite SPLn in SL, LF.
  assert (IDE : ids_eqb (env_ids (erase_env fs)) (ids args) = true) by (rewrite IDF, IDS; apply ids_eqb_refl).
  assert (HS : hstep p (he0 ++ fs) hs (Let v t tag args next) =
               HStep [Heap.OAllocObj (map store_ptr fs)] (he0 ++ [(v, VObj tn tag (map h_val fs), fst (Heap.alloc_object (map store_ptr fs) hs))]) next None).
  { cbn [hstep]. rewrite TN, SL, IDE. reflexivity. }
  hstep_with HS G. cbn [rev_append push_print] in G |- *.
  pose proof (hinv_step p LP _ _ _ _ _ _ _ HI HS) as HI'.
  cbn [hrun fold_left Heap.step] in HI'.
  pose proof (hinv_fit0 p _ _ _ HI') as HF.
  cbn [ann_check] in AN. rewrite <- SPLn, split_lastn_app in AN.
  destruct (hsim_let im p stop _ _ hs st v t tag args next lc code lc' pc he0 fs tn hl fl cl0 R LC0 CS PL TN SL IA K03 EX FIT0 HF)
    as (c12 & c3 & lc1 & s' & -> & NX & LCn' & X & R').
  rewrite firstn_app_exact in NX, LCn', R' by exact SPLn.
  apply placed_app in PL as [_ PL3].
  eassert (IHn : rfin im stop _ s' _ /\ has_nz c3).
  { eapply (IH next (c0 ++ [mkb v Prd t]) _ _ _ s'); eauto.
    rewrite map_h_id_app in *. unfold vars in *. rewrite !map_app in *. cbn [map h_id fst bvar].
    apply app_inv_len in NM as [NM _]; [|rewrite !map_length; exact L0]. now rewrite NM. }
  destruct IHn as [Fin NZn]. split; [eapply star_rfin; eauto|nz_tail NZn].
Qed.

Lemma exec_switch fuel v t cls : (forall s, sim fuel s) -> sim (S fuel) (Switch v t cls).
Proof.
  intros IH c he hs tr st pc code lc lc' FR LC AN CS PL R NM HI G.
  destruct (hinv_facts _ _ _ HI) as ((hl & fl & cl0 & IA) & K03 & FIT0 & EX). pose proof (hrel_length R) as LEN.
  rewrite stmt_k_switch in FR. pose proof FR as FRc.
  pose proof LC as LC0. rewrite lin_check_switch in LC. apply andb_true_iff in LC as [_ LC].
  destruct (split_lastn 1 c) as [[c0 [|b [|b' r]]]|] eqn:SLc; try discriminate.
  apply split_lastn_Some in SLc as [-> _].
  apply andb_true_iff in LC as [LC LCc]. apply andb_true_iff in LC as [LC CO]. apply andb_true_iff in LC as [LC TY].
  apply andb_true_iff in LC as [IDb CH]. apply N.eqb_eq in IDb. apply ty_eqb_eq in TY. apply chi_eqb_eq in CH.
  destruct (hrel_last (ptypes p) CLO c0 b he hs st R) as (he0 & x & val & q & -> & L0 & IDX0 & V).
  inversion V as [? z ? ? KE ?|b1 v1 q1 dw t1 t2 NE K1 K2 T1 T2 L1 L2 X]; subst; [congruence|].
  destruct val as [z|tn tag fs|tn cls' ce]; cbn in K1; try congruence. cbn in K2. rewrite <- K2 in *.
  inversion X as [|tn1 tag1 fs1 q1 a1 TW XF|]; subst.
  destruct TW as (d & k' & xk & FD & XP' & _ & FX & SK).
  assert (IDX : idn x = idn v) by congruence.
  pose proof CO as CO'. unfold cls_ok, type_xtors in CO'. cbn [sigs_of sg_types] in CO'. rewrite FD in CO'.
  destruct (SimFrag.find_clause_total cls (txtors d) tag xk CO' FX) as (cl & FC).
  destruct (SimFrag.find_clause_pos cls (txtors d) tag cl 0%N CO' FC) as (k & xk0 & Hk & Hxk & XPk & FX' & SMk).
  assert (xk0 = xk) by congruence. subst xk0.
  destruct (SimFrag.bind_total (vars (cl_ctx cl)) fs) as (e1 & BD).
  { apply sig_match_iff, same_kt_length in SMk. apply Forall2_len in SK. unfold vars. rewrite map_length. lia. }
  unfold henv, hentry in *.
  assert (HS : hstep p (he0 ++ [(x, VObj tn tag fs, q)]) hs (Switch v (Decl tn) cls) =
               HStep (load_ops (List.length (cl_ctx cl)) q) (he0 ++ attach e1 (load_ptrs hs (List.length (cl_ctx cl)) q)) (cl_body cl) None).
  { cbn [hstep]. rewrite SimFrag.split_last1_app. apply N.eqb_eq in IDX. rewrite IDX, FC, BD. reflexivity. }
  hstep_with HS G. cbn [push_print] in G |- *.
  pose proof (hinv_step p LP _ _ _ _ _ _ _ HI HS) as HI'.
  assert (RF' : exists lk, fs <> [] -> HeapRep.rep_flds lk (Heap.m hs) fs q).
  { destruct fs as [|f0 fr]; [exists (fun _ => O); congruence|].
    destruct (hinv_last_rep p _ _ _ _ _ _ HI) as (lk & RP). exists lk. intros _. inversion RP; subst. assumption. }
  destruct RF' as (lk & RFlk).
  destruct (hsim_switch im p stop IMG FWD EVEN SMALL STOPC ENDC _ _ hs st v (Decl tn) cls lc code lc' pc he0 x tn tag fs q cl e1 lk hl fl cl0 R LC0 FRc CS PL
              (SimFrag.split_last1_app _ _) FC BD IA K03 ltac:(lia) RFlk)
    as (pcb & lcb & cb & lcb' & s' & X' & CSb & PLb & LCb & NZC & R').
  rewrite removelast_last in CSb, LCb, R'.
  rewrite ann_check_switch in AN. change 1%nat with (List.length [b]) in AN. rewrite split_lastn_app in AN.
  pose proof (find_clause_in _ _ _ FC) as INc.
  eassert (IHn : rfin im stop _ s' _ /\ has_nz cb).
  { eapply (IH (cl_body cl) (c0 ++ cl_ctx cl) _ _ _ s'); try eassumption.
    + exact (clauses_k_in _ _ FRc INc).
    + unfold ann_clauses_sw in AN. rewrite forallb_forall in AN. apply AN. exact INc.
    + rewrite map_h_id_app in *. unfold vars in *. rewrite !map_app in *. cbn [map] in NM.
      apply app_inj_tail in NM as [NM _]. rewrite NM. f_equal. rewrite attach_names. exact (SimFrag.bind_ids _ _ _ BD). }
  destruct IHn as [Fin NZn]. split; [apply X'; exact Fin|exact (NZC NZn)].
Qed.

Lemma exec_create fuel v t env cls next : (forall s, sim fuel s) -> sim (S fuel) (Create v t env cls next).
Proof.
  intros IH c he hs tr st pc code lc lc' FR LC AN CS PL R NM HI G.
  destruct (hinv_facts _ _ _ HI) as ((hl & fl & cl0 & IA) & K03 & FIT0 & EX). pose proof (hrel_length R) as LEN.
  destruct env as [env|]; [|cbn [stmt_k] in FR; discriminate].
  rewrite stmt_k_create in FR. apply andb_true_iff in FR as [FRc FRn].
  pose proof LC as LC0. rewrite lin_check_create in LC. apply andb_true_iff in LC as [_ LC].
  destruct (split_lastn (List.length env) c) as [[c0 tl]|] eqn:SPL; [|discriminate].
  pose proof SPL as SPL0. apply split_lastn_Some in SPL as [-> SPLn].
  apply andb_true_iff in LC as [LC LCn]. apply andb_true_iff in LC as [LC LCc]. apply andb_true_iff in LC as [CM CO].
  apply ctx_match_Prop in CM as [IDS SKT].
  rewrite ann_check_create, SPL0 in AN. apply andb_true_iff in AN as [AN ANn]. apply andb_true_iff in AN as [ANe ANc].
  apply ctx_eqb_eq in ANe. subst tl.
  assert (TN : exists tn, t = Decl tn).
  { unfold cls_ok, type_xtors in CO. destruct t as [|tn]; [discriminate|eauto]. }
  destruct TN as (tn & ->).
  destruct (hrel_suffix _ _ _ _ _ R) as (he0 & cap & SL & -> & L0 & LF & IDF).
  assert (IDE : ids_eqb (env_ids (erase_env cap)) (ids env) = true) by (rewrite IDF; apply ids_eqb_refl).
  destruct (SimFrag.bind_total (vars env) (map h_val cap)) as (ce & BDc).
  { unfold vars. rewrite !map_length. lia. }
  assert (HS : hstep p (he0 ++ cap) hs (Create v (Decl tn) (Some env) cls next) =
               HStep [Heap.OAllocObj (map store_ptr cap)] (he0 ++ [(v, VClo tn cls ce, fst (Heap.alloc_object (map store_ptr cap) hs))]) next None).
  { cbn [hstep ty_name]. rewrite SL, IDE, BDc. reflexivity. }
  hstep_with HS G. cbn [rev_append push_print] in G |- *.
  pose proof (hinv_step p LP _ _ _ _ _ _ _ HI HS) as HI'.
  cbn [hrun fold_left Heap.step] in HI'.
  pose proof (hinv_fit0 p _ _ _ HI') as HF.
  assert (SKP : skipn (List.length (c0 ++ env) - List.length env) (c0 ++ env) = env).
  { rewrite app_length. replace (List.length c0 + List.length env - List.length env)%nat with (List.length c0) by lia.
    rewrite skipn_app, skipn_all, Nat.sub_diag. reflexivity. }
  destruct (hsim_create im p stop IMG FWD EVEN SMALL STOPC ENDC _ _ hs st v (Decl tn) env cls next lc code lc' pc he0 cap tn ce hl fl cl0
              R LC0 SKP ANc FRc CS PL eq_refl SL BDc IA K03 EX FIT0 HF)
    as (c12 & c3 & lc2 & lc3 & rest' & s' & -> & NX & LCn' & X & R').
  rewrite firstn_app_exact in NX, LCn', R' by reflexivity.
  apply placed_app in PL as [_ PL3]. apply placed_app in PL3 as [PL3 _].
  eassert (IHn : rfin im stop _ s' _ /\ has_nz c3).
  { eapply (IH next (c0 ++ [mkb v Cns (Decl tn)]) _ _ _ s'); eauto.
    rewrite map_h_id_app in *. unfold vars in *. rewrite !map_app in *. cbn [map h_id fst bvar].
    apply app_inv_len in NM as [NM _]; [|rewrite !map_length; exact L0]. now rewrite NM. }
  destruct IHn as [Fin NZn]. split; [eapply star_rfin; eauto|].
  apply has_nz_app_r, has_nz_app_l. exact NZn.
Qed.

Lemma exec_invoke fuel v tag t args : (forall s, sim fuel s) -> sim (S fuel) (Invoke v tag t args).
Proof.
  intros IH c he hs tr st pc code lc lc' FR LC AN CS PL R NM HI G.
  destruct (hinv_facts _ _ _ HI) as ((hl & fl & cl0 & IA) & K03 & FIT0 & EX). pose proof (hrel_length R) as LEN.
  pose proof LC as LC0. cbn [lin_check] in LC. apply andb_true_iff in LC as [_ LC].
  destruct (split_lastn 1 c) as [[c0 [|b [|b' r]]]|] eqn:SLc; try discriminate.
  apply split_lastn_Some in SLc as [-> _].
  apply andb_true_iff in LC as [LC AO]. apply andb_true_iff in LC as [LC TY]. apply andb_true_iff in LC as [IDb CH].
  apply N.eqb_eq in IDb. apply ty_eqb_eq in TY. apply chi_eqb_eq in CH.
  destruct (hrel_last (ptypes p) CLO c0 b he hs st R) as (he0 & x & val & q & -> & L0 & IDX0 & V).
  inversion V as [? z ? ? KE ?|b1 v1 q1 a t1 t2 NE K1 K2 T1 T2 L1 L2 X]; subst; [congruence|].
  destruct val as [z|tn tag0 fs|tn cls ce]; cbn in K1; try congruence. cbn in K2.
  inversion X as [| |tn1 cls1 ce1 q1 a1 CLOa XF]; subst.
  pose proof CLOa as (CO & _).
  assert (IDX : idn x = idn v) by congruence.
  rewrite <- K2 in *. unfold cls_ok, type_xtors in CO. cbn [sigs_of sg_types] in CO.
  unfold args_ok, lookup_xtor, type_xtors in AO. cbn [sigs_of sg_types] in AO.
  destruct (find (fun d => ident_eqb (tname d) tn) (ptypes p)) as [d|] eqn:FD; [|discriminate].
  destruct (find (fun x => ident_eqb (xname x) tag) (txtors d)) as [xk|] eqn:FX; [|discriminate].
  destruct (SimFrag.find_clause_total cls (txtors d) tag xk CO FX) as (cl & FC).
  destruct (SimFrag.find_clause_pos cls (txtors d) tag cl 0%N CO FC) as (k & xk' & Hk & Hxk & XPk & FX' & SMk).
  assert (xk' = xk) by congruence. subst xk'.
  destruct (SimFrag.bind_total (vars (cl_ctx cl)) (map snd (erase_env he0))) as (e1 & BD).
  { apply sig_match_iff, same_kt_length in AO. apply sig_match_iff, same_kt_length in SMk. unfold vars, erase_env. rewrite !map_length. unfold hentry in *. lia. }
  unfold henv, hentry in *.
  assert (HS : hstep p (he0 ++ [(x, VClo tn cls ce, q)]) hs (Invoke v tag (Decl tn) args) =
               HStep (load_ops (List.length ce) q) (attach e1 (ptrs he0) ++ attach ce (load_ptrs hs (List.length ce) q)) (cl_body cl) None).
  { cbn [hstep]. rewrite SimFrag.split_last1_app. apply N.eqb_eq in IDX. rewrite IDX, FC, BD. reflexivity. }
  hstep_with HS G. cbn [push_print] in G |- *.
  pose proof (hinv_step p LP _ _ _ _ _ _ _ HI HS) as HI'.
  assert (RF' : exists lk, ce <> [] -> HeapRep.rep_flds lk (Heap.m hs) (map snd ce) q).
  { destruct (hinv_last_rep p _ _ _ _ _ _ HI) as (lk & RP). exists lk. intros _. inversion RP; subst. assumption. }
  destruct RF' as (lk & RFlk).
  destruct (hsim_invoke im p stop STOPC ENDC _ _ hs st v tag (Decl tn) args code lc lc' pc he0 x tn cls ce q cl e1 lk hl fl cl0
              R (SimFrag.split_last1_app _ _) FC BD LC0 CS (proj1 PL) IA K03 ltac:(lia) RFlk)
    as (pcb & lcb & cb & lcb' & s' & X' & CSb & PLb & LCb & ANb & FRb & R').
  eassert (IHn : rfin im stop _ s' _ /\ has_nz cb).
  { eapply (IH (cl_body cl) (cl_ctx cl ++ HRep.ctx_of_env ce) _ _ _ s'); eauto.
    rewrite map_h_id_app, !attach_names. unfold vars at 1. rewrite map_app. fold (vars (cl_ctx cl)) (vars (HRep.ctx_of_env ce)).
    rewrite vars_ctx_of_env. f_equal. exact (SimFrag.bind_ids _ _ _ BD). }
  destruct IHn as [Fin NZn]. split; [apply (X' NZn); exact Fin|].
  destruct (cs_invoke _ _ _ _ _ _ _ _ _ _ CS) as (tmpv' & d' & _ & _ & _ & CD).
  destruct (Nat.leb (List.length (txtors d')) 1); [subst code; apply nz1; cbn; lia|destruct CD as (k' & _ & ->)].
  cbv [b_mark b_add_and_jump rv_backend r_add_and_jump]. cbn [app].
  destruct (addi_fits _); cbn [app]; apply nz1; [cbn; lia|apply isize_LI].
Qed.

Lemma exec_literal fuel n v next : (forall s, sim fuel s) -> sim (S fuel) (Literal n v next).
Proof.
  intros IH c he hs tr st pc code lc lc' FR LC AN CS PL R NM HI G.
  cbn [stmt_k] in FR.
  cbn [lin_check] in LC. apply andb_true_iff in LC as [_ LC]. cbn [ann_check] in AN.
  assert (HS : hstep p he hs (Literal n v next) = HStep [] (he ++ [(v, VInt n, 0)]) next None) by reflexivity.
  hstep_with HS G. cbn [hrun fold_left rev_append push_print] in G |- *.
  destruct (cs_literal _ _ _ _ _ _ _ _ _ CS) as (tv & c2 & TV & NX & ->). cbn [b_mark b_load_immediate rv_backend app] in PL.
  apply placed_app in PL as [PL1 PL2].
  destruct (hsim_literal im (ptypes p) CLO c he hs st n v tv pc R (SimFrag.lin_nodup _ _ _ LC) TV (proj1 PL1)) as (s' & X & R').
  eassert (IHn : rfin im stop _ s' _ /\ has_nz c2).
  { eapply (IH next (c ++ [mkb v Ext I64]) _ hs _ s'); eauto.
    + rewrite map_h_id_app. unfold vars. rewrite map_app. cbn. unfold vars in NM. now rewrite NM.
    + exact (hinv_step p LP _ _ _ _ _ _ _ HI HS). }
  destruct IHn as [Fin NZn]. split; [eapply star_rfin; eauto|nz_tail NZn].
Qed.

Lemma exec_op fuel a op b v next : (forall s, sim fuel s) -> sim (S fuel) (Op a op b v next).
Proof.
  intros IH c he hs tr st pc code lc lc' FR LC AN CS PL R NM HI G.
  cbn [stmt_k] in FR.
  cbn [lin_check] in LC. apply andb_true_iff in LC as [_ LC]. apply andb_true_iff in LC as [LCo LC].
  apply andb_true_iff in LCo as [HA HB]. cbn [ann_check] in AN.
  destruct (hhas_ext_lookup_int (ptypes p) CLO c he hs st a R HA) as (x & LA1).
  destruct (hhas_ext_lookup_int (ptypes p) CLO c he hs st b R HB) as (y & LB1).
  destruct (cs_op _ _ _ _ _ _ _ _ _ _ _ CS) as (tv & ta & tb & c2 & TV & TA & TB & NX & ->). cbn [b_mark b_arith rv_backend app] in PL.
  apply placed_app in PL as [PL1 PL2].
  destruct (eval_op op x y) as [z|w] eqn:EV.
  + assert (HS : hstep p he hs (Op a op b v next) = HStep [] (he ++ [(v, VInt z, 0)]) next None) by (cbn [hstep]; now rewrite LA1, LB1, EV).
    hstep_with HS G. cbn [hrun fold_left rev_append push_print] in G |- *.
    destruct (hsim_op im (ptypes p) CLO c he hs st a op b v x y z tv ta tb pc R (SimFrag.lin_nodup _ _ _ LC) LA1 LB1 EV TV TA TB (proj1 PL1)) as (s' & X & R').
    replace (List.length (r_arith op tv ta tb)) with 1%nat in PL2 by (destruct op; reflexivity).
    eassert (IHn : rfin im stop _ s' _ /\ has_nz c2).
    { eapply (IH next (c ++ [mkb v Ext I64]) _ hs _ s'); eauto.
      * rewrite map_h_id_app. unfold vars. rewrite map_app. cbn. unfold vars in NM. now rewrite NM.
      * exact (hinv_step p LP _ _ _ _ _ _ _ HI HS). }
    destruct IHn as [Fin NZn]. split; [eapply star_rfin; eauto|nz_tail NZn].
  + assert (HS : hstep p he hs (Op a op b v next) = HEnd (OUndef w)) by (cbn [hstep]; now rewrite LA1, LB1, EV).
    hstep_with HS G. cbn [fst].
    destruct (hsim_op_undef im (ptypes p) CLO c he hs st a op b v x y w tv ta tb R (SimFrag.lin_nodup _ _ _ LC) LA1 LB1 EV TV TA TB) as (ci & E & ST).
    rewrite E in PL1. destruct (proj1 PL1 O ci eq_refl) as (HC & (ad & HA')). cbn [padd] in HC, HA'.
    split; [exact (rfin_undef im stop STOPC pc ci ad st w st HC HA' (ST ad))|].
    destruct op; apply nz1; cbn; lia.
Qed.

Lemma exec_print fuel nl v next : (forall s, sim fuel s) -> sim (S fuel) (PrintI64 nl v next).
Proof.
  intros IH c he hs tr st pc code lc lc' FR LC AN CS PL R NM HI G.
  cbn [stmt_k] in FR. discriminate.
Qed.

Lemma exec_ifc fuel so a b thenc elsec : (forall s, sim fuel s) -> sim (S fuel) (IfC so a b thenc elsec).
Proof.
  intros IH c he hs tr st pc code lc lc' FR LC AN CS PL R NM HI G.
  cbn [stmt_k] in FR. apply andb_true_iff in FR as [FR1 FR2].
  cbn [lin_check] in LC. apply andb_true_iff in LC as [_ LC].
  apply andb_true_iff in LC as [LC LCe]. apply andb_true_iff in LC as [LCo LCt]. apply andb_true_iff in LCo as [HA HB].
  cbn [ann_check] in AN. apply andb_true_iff in AN as [ANt ANe].
  destruct (hhas_ext_lookup_int (ptypes p) CLO c he hs st a R HA) as (x & LA1).
  assert (LB1 : exists y, match b with Some b0 => lookup_int (erase_env he) b0 | None => Some 0 end = Some y).
  { destruct b as [b|]; [|eauto]. exact (hhas_ext_lookup_int (ptypes p) CLO c he hs st b R HB). }
  destruct LB1 as (y & LB1).
  assert (HS : hstep p he hs (IfC so a b thenc elsec) = HStep [] he (if eval_cmp so x y then thenc else elsec) None) by (cbn [hstep]; now rewrite LA1, LB1).
  hstep_with HS G. cbn [hrun fold_left rev_append push_print] in G |- *.
  destruct (hsim_ifc im (ptypes p) CLO c he hs st so a b x y thenc elsec lc code lc' pc R LA1 LB1 CS PL)
    as (c2 & lc2 & c3 & -> & EL & TH & X).
  pose proof (hinv_step p LP _ _ _ _ _ _ _ HI HS) as HI'. cbn [hrun fold_left] in HI'.
  apply placed_app in PL as [_ PL]. apply placed_app in PL as [PL2 PL]. apply placed_app in PL as [_ PL3].
  rewrite <- !padd_add in PL3. cbn [List.length] in PL2, PL3. rewrite Nat.add_assoc in PL3.
  split.
  2:{ destruct (cs_ifc _ _ _ _ _ _ _ _ _ _ _ CS) as (ta' & c1' & c2' & lc2' & c3' & _ & C1' & _ & _ & EC).
      rewrite EC. cbn [b_mark rv_backend app].
      destruct b as [b|]; [destruct C1' as (tb' & _ & ->)|subst c1']; destruct so; apply nz1; cbn; lia. }
  eapply star_rfin; eauto.
  destruct (eval_cmp so x y).
  + eapply (IH thenc c he hs _ st); eauto.
  + eapply (IH elsec c he hs _ st); eauto.
Qed.

Lemma exec_exit fuel v : (forall s, sim fuel s) -> sim (S fuel) (Exit v).
Proof.
  intros IH c he hs tr st pc code lc lc' FR LC AN CS PL R NM HI G.
  cbn [lin_check] in LC. apply andb_true_iff in LC as [_ HV].
  destruct (hhas_ext_lookup_int (ptypes p) CLO c he hs st v R HV) as (z & LV).
  assert (HS : hstep p he hs (Exit v) = HEnd (OExit z)) by (cbn [hstep]; now rewrite LV).
  hstep_with HS G. cbn [fst].
  destruct (hsim_exit im (ptypes p) CLO c he hs st v z lc code lc' pc stop R LV CS (proj1 PL) STOPL) as (s' & X & FC & _).
  split; [eapply star_rfin; eauto; cbn [finish rev_append]; rewrite <- FC; apply rfin_stop; assumption|].
  destruct (cs_exit _ _ _ _ _ _ _ CS) as (tv & _ & -> & _). apply nz1. cbn; lia.
Qed.

Lemma hsim_exec : forall fuel s c he hs tr st pc code lc lc',
  stmt_k s = true -> lin_check (sigs_of p) c s = true -> ann_check c s = true ->
  rcs (ptypes p) s c lc = Ok (code, lc') -> placed im pc code ->
  hrel c he hs st -> map h_id he = vars c -> hinv he hs s ->
  SimFrag.not_oof (fst (fst (hexec fuel p (mkhc he hs s) [] tr))) ->
  rfin im stop pc st (fst (fst (hexec fuel p (mkhc he hs s) [] tr))) /\ has_nz code.
Proof.
  induction fuel as [|fuel IH]; intros s.
  { intros c he hs tr st pc code lc lc' _ _ _ _ _ _ _ _ G. exfalso. apply G. reflexivity. }
  destruct s as [re next|label args|v t tag args next|v t cls|v t env cls next|v tag t args|n v next|a op b v next|nl v next|so a b thenc elsec|v].
  - exact (exec_substitute fuel re next IH).
  - exact (exec_call fuel label args IH).
  - exact (exec_let fuel v t tag args next IH).
  - exact (exec_switch fuel v t cls IH).
  - exact (exec_create fuel v t env cls next IH).
  - exact (exec_invoke fuel v tag t args IH).
  - exact (exec_literal fuel n v next IH).
  - exact (exec_op fuel a op b v next IH).
  - exact (exec_print fuel nl v next IH).
  - exact (exec_ifc fuel so a b thenc elsec IH).
  - exact (exec_exit fuel v IH).
Qed.
End MainH.
