(* C06, forward simulation for HEAP statements: one step of the instrumented machine `hstep`
   (Sem/AxHeap.v) is matched by the execution of the statement's code (`sim_step`, one lemma per statement form);
   progress (the machine does not get stuck on a linearly checked statement) is part of each.  `hcfg` collects what
   holds between a configuration of the machine and a state of the code; the induction over the fuel of `hexec`
   only chains steps. *)
From Coq Require Import List ZArith NArith String Bool Lia FMapPositive Permutation.
From SCC Require Import Proof.X86Mem Proof.X86MemFrame Proof.X86StackFrame.
From SCC Require Import Base.Sexp Lang.AxSyn Sem.AxSem Sem.AxHeap Model.ParMoves Model.Backend Model.X86 Sem.X86Sem Sem.X86Wf
     Model.Linearize Model.LinCheck Generated.Constants Proof.LinBasics Proof.LinTyping Proof.LinMachine Proof.X86State Proof.X86Sel Proof.X86Exec Proof.X86ParMoves
     Proof.SubstGraph Proof.X86Subst Proof.X86SimRel Proof.X86SimStmt Proof.X86SimPrint Proof.X86SimAddr Proof.X86SimClo Proof.X86SimProg Proof.X86SimProgC Proof.X86SimTop
     Proof.X86HeapDefs Proof.X86HeapCongr Proof.X86HBridge Proof.X86HFrame
     Proof.X86HSimRel Proof.X86HSimStmt Proof.X86HConv Proof.X86HSimStore Proof.X86HSimLoad Proof.X86HSimSubst Proof.X86HLayout
     Proof.X86HSimHeapA Proof.X86HAnn Proof.X86HSimHeapB Proof.X86HSimHeapC Proof.X86HSimProgA.
From SCC Require Model.Heap Proof.HeapMore Proof.HeapTrace Proof.HeapRep Proof.AxHeapTyping Proof.AxHeapSafe.
Import ListNotations.
Open Scope Z_scope.
Open Scope list_scope.

Lemma has_in_ids c x k t : has c x k t = true -> In (idn x) (ids c).
Proof.
  unfold has. destruct (lookup_b c (idn x)) as [b|] eqn:L; [|discriminate]. intros _.
  apply lookup_b_Some in L as [Hin Hid]. rewrite <- Hid. now apply In_ids.
Qed.
Lemma find_clause_in cls tag cl : find_clause cls tag = Some cl -> In cl cls.
Proof. unfold find_clause. intros H. apply find_some in H. tauto. Qed.
Lemma vars_ctx_of_env ce : vars (ctx_of_env ce) = map fst ce.
Proof. unfold vars, ctx_of_env. rewrite map_map. reflexivity. Qed.
Lemma map_h_id_app (a b : henv) : map h_id (a ++ b) = map h_id a ++ map h_id b.
Proof. apply map_app. Qed.
Lemma names_push (he : henv) c v val q b :
  map h_id he = vars c -> bvar b = v -> map h_id (he ++ [(v, val, q)]) = vars (c ++ [b]).
Proof. intros NM <-. unfold vars in *. rewrite !map_app, NM. reflexivity. Qed.
Lemma names_prefix {he0 fs : henv} {c0 tl} :
  map h_id (he0 ++ fs) = vars (c0 ++ tl) -> List.length he0 = List.length c0 -> map h_id he0 = vars c0.
Proof.
  unfold vars. rewrite !map_app. intros NM L0. apply app_inv_len in NM as [NM _]; [exact NM|rewrite !map_length; exact L0].
Qed.

(* the machine splits off the last entries exactly when the context has them *)
Lemma hsplit_total {X} (he : list X) n : (n <= List.length he)%nat -> exists he0 fs, AxSem.split_last n he = Some (he0, fs) /\ he = he0 ++ fs /\ List.length fs = n.
Proof.
  intros L. unfold AxSem.split_last. destruct (Nat.leb_spec n (List.length he)); [|lia].
  eexists _, _. split; [reflexivity|]. split; [symmetry; apply firstn_skipn|]. rewrite skipn_length. lia.
Qed.

(* an environment whose names are those of a context that ends in `tl`: the machine's split of the last entries succeeds *)
Lemma env_split c0 tl (he : henv) :
  env_ids (erase_env he) = ids (c0 ++ tl) ->
  exists he0 fs, he = he0 ++ fs /\ AxSem.split_last (List.length tl) he = Some (he0, fs) /\
                 List.length he0 = List.length c0 /\ List.length fs = List.length tl /\ env_ids (erase_env fs) = ids tl.
Proof.
  intros Ids. pose proof (f_equal (@List.length N) Ids) as LEN.
  unfold env_ids, ids, erase_env in LEN, Ids. rewrite !map_length, app_length in LEN.
  destruct (hsplit_total he (List.length tl)) as (he0 & fs & SL & -> & LF); [unfold henv, hentry in *; lia|].
  rewrite app_length in LEN. assert (L0 : List.length he0 = List.length c0) by lia.
  exists he0, fs. repeat split; auto.
  rewrite !map_app in Ids. apply app_inv_len in Ids as [_ Ids]; [exact Ids|rewrite !map_length; exact L0].
Qed.

Section MainH.
Variable im : image.
Variable p : prog.
Variable sp : Z.
Hypothesis IMG : img_ok im.
Hypothesis BACK : back_ok im.
Hypothesis SMALL : forall pc a, PM.find pc (addr_of im) = Some a -> a < 4611686018427387904.
Hypothesis ENC : forall pc c, PM.find pc (code im) = Some c -> instr_wf c = true.
Hypothesis PLT : forall d, In d (ptypes p) -> is_hash_label (label_of_type_name (show_ident (tname d))) = false.
Hypothesis DEFS : defs_at im p.
Hypothesis CLEAN : cleanup_at im.
Hypothesis LP : lin_check_prog p = true.
Hypothesis ANN : ann_check_prog p = true.
Notation CLO := (hclo_ok im p).
Local Notation hrel := (hrel (ptypes p) CLO).
Local Notation hinv := (hinv p).

Lemma LIN d : In d (pdefs p) -> lin_check (sigs_of p) (dctx d) (dbody d) = true.
Proof. unfold lin_check_prog in LP. rewrite forallb_forall in LP. exact (LP d). Qed.
Lemma ANNd d : In d (pdefs p) -> ann_check (dctx d) (dbody d) = true.
Proof. unfold ann_check_prog in ANN. rewrite forallb_forall in ANN. exact (ANN d). Qed.

(* the labels of declared types are not '#'-labels *)
Lemma type_nh tn cls : cls_ok (sigs_of p) (Decl tn) cls = true -> forall lcx, is_hash_label (type_label (Decl tn) lcx) = false.
Proof.
  unfold cls_ok, type_xtors. cbn [sigs_of sg_types]. destruct (find (fun d => ident_eqb (tname d) tn) (ptypes p)) as [d|] eqn:FD; [|discriminate].
  intros _ lcx. apply find_some in FD as [IN EQ]. apply ident_eqb_eq in EQ. subst tn.
  unfold type_label. cbn [show_ty]. apply nh_sub_label. exact (PLT d IN).
Qed.

(* what the induction carries: the checks on the statement, its code in the image, the relation, the invariant *)
Record hcfg (c : ctx) (s : stmt) (he : henv) (hs : Heap.st) (st : xstate) (pc : positive) : Prop := mk_hcfg {
  hg_lin : lin_check (sigs_of p) c s = true;
  hg_ann : ann_check c s = true;
  hg_code : exists code lc lc', xcs (ptypes p) s c lc = Ok (code, lc') /\ code_at im pc code /\ labels_at_nh im pc code;
  hg_rel : hrel c he hs st sp;
  hg_names : map h_id he = vars c;
  hg_inv : hinv he hs s;
  hg_outer : outer_ok st sp
}.

Definition sim_step (c : ctx) (s : stmt) (he : henv) (hs : Heap.st) (st : xstate) (pc : positive) : Prop :=
  match hstep p he hs s with
  | HEnd o => finishes im pc st (finish (out st) o)
  | HStep ops he' s' pr =>
      exists c' st' pc', exec_to im pc st pc' st' /\ hcfg c' s' he' (hrun ops hs) st' pc' /\ out st' = push_print pr (out st)
  end.

Lemma sim_step_intro {c s he hs st pc ops he' s' pr} c' st' pc' code lc lc' :
  hcfg c s he hs st pc -> hstep p he hs s = HStep ops he' s' pr -> exec_to im pc st pc' st' ->
  lin_check (sigs_of p) c' s' = true -> ann_check c' s' = true ->
  xcs (ptypes p) s' c' lc = Ok (code, lc') -> code_at im pc' code -> labels_at_nh im pc' code ->
  hrel c' he' (hrun ops hs) st' sp -> map h_id he' = vars c' -> outer_ok st' sp -> out st' = push_print pr (out st) ->
  sim_step c s he hs st pc.
Proof.
  intros H HS X LC AN CS CA LA R NM OK O. unfold sim_step. rewrite HS. exists c', st', pc'.
  split; [exact X|]. split; [|exact O].
  split; [exact LC|exact AN|exists code, lc, lc'; auto|exact R|exact NM|exact (hinv_step p LP _ _ _ _ _ _ _ (hg_inv _ _ _ _ _ _ H) HS)|exact OK].
Qed.

(* the usual case: nothing is printed, and the code leaves the stack above the frame alone *)
Lemma sim_step_silent {c s he hs st pc ops he' s'} c' st' pc' code lc lc' :
  hcfg c s he hs st pc -> hstep p he hs s = HStep ops he' s' None -> exec_to im pc st pc' st' ->
  lin_check (sigs_of p) c' s' = true -> ann_check c' s' = true ->
  xcs (ptypes p) s' c' lc = Ok (code, lc') -> code_at im pc' code -> labels_at_nh im pc' code ->
  hrel c' he' (hrun ops hs) st' sp -> map h_id he' = vars c' -> hframe_eq st st' sp ->
  sim_step c s he hs st pc.
Proof.
  intros H HS X LC AN CS CA LA R NM FE.
  apply (sim_step_intro c' st' pc' code lc lc' H HS X LC AN CS CA LA R NM); [|exact (proj1 FE)].
  exact (hframe_eq_outer _ _ _ (proj2 (hr_frame (hg_rel _ _ _ _ _ _ H))) FE (hg_outer _ _ _ _ _ _ H)).
Qed.

Lemma sim_substitute c re next he hs st pc : hcfg c (Substitute re next) he hs st pc -> sim_step c (Substitute re next) he hs st pc.
Proof.
  intros H. pose proof H as [LC AN (code & lc & lc' & CS & CA & LA) R NM HI OK].
  destruct (hinv_invA p _ _ _ HI) as (hl & fl & cl0 & IA).
  cbn [lin_check] in LC. apply andb_true_iff in LC as [_ LC]. apply andb_true_iff in LC as [LCs LCn].
  rewrite forallb_forall in LCs.
  destruct (hsubst_total he re) as (he' & HSB).
  { intros q Hq. rewrite (hr_ids R). eapply has_in_ids. exact (LCs q Hq). }
  assert (HS : hstep p he hs (Substitute re next) = HStep (subst_ops he re) he' next None) by (cbn [hstep]; now rewrite HSB).
  destruct (cs_substitute _ _ _ _ _ _ _ CS) as (c1 & lc1 & c2 & c3 & WC & CE & NX & ->).
  assert (NDn : NoDup (new_ids re)) by (rewrite <- ids_new; exact (lin_nodup _ _ _ LCn)).
  rewrite app_assoc in CA, LA. apply code_at_app in CA as [CA2 CA3]. apply labels_at_nh_app in LA as [LA2 LA3].
  destruct (hsim_substitute im (ptypes p) CLO c he hs st sp re he' c1 lc lc1 c2 pc hl fl cl0 R NDn LCs HSB
              (hrel_ctx_of _ _ _ _ _ _ _ R NM) IA (hi_p03 _ _ _ _ HI) ltac:(pose proof (hinv_fit0 p _ _ _ HI); lia) WC CE CA2 LA2)
    as (s' & X & R' & FE).
  apply (sim_step_silent (map fst re) s' _ c3 lc1 lc' H HS X LCn AN NX CA3 LA3 R'); [|exact FE].
  eapply hsubst_names; eauto.
Qed.

Lemma sim_call c label args he hs st pc : hcfg c (Call label args) he hs st pc -> sim_step c (Call label args) he hs st pc.
Proof.
  intros H. pose proof H as [LC AN (code & lc & lc' & CS & CA & LA) R NM HI OK].
  pose proof (hrel_length R) as LEN.
  cbn [lin_check] in LC. apply andb_true_iff in LC as [_ LC].
  destruct (lookup_label (sigs_of p) label) as [ps|] eqn:LL; [|discriminate].
  destruct (lookup_label_find_def p label ps LL) as (d & FD & <-).
  destruct (bind_total (vars (dctx d)) (map snd (erase_env he))) as (e' & BD).
  { apply sig_match_iff, same_kt_length in LC. unfold vars, erase_env. rewrite !map_length. unfold hentry in *. lia. }
  assert (HS : hstep p he hs (Call label args) = HStep [] (attach e' (ptrs he)) (dbody d) None) by (cbn [hstep]; now rewrite FD, BD).
  unfold find_def in FD. apply find_some in FD as [IN EQ]. apply ident_eqb_eq in EQ. subst label.
  destruct (cs_call _ _ _ _ _ _ _ CS) as (-> & _).
  destruct (DEFS d IN) as (pcd & lcd & cd & lcd' & FL & CLb & CSd & CAd & LAd).
  apply code_at_cons in CA as [CJ _].
  assert (X : exec_to im pc st (Pos.succ pcd) st).
  { eapply exec_jump; [exact CJ|cbn [step]; unfold goto_label; rewrite FL; reflexivity|].
    eapply exec_next; [exact CLb|reflexivity|apply exec_refl]. }
  apply (sim_step_silent (dctx d) st _ cd lcd lcd' H HS X (LIN d IN) (ANNd d IN) CSd CAd LAd
           (hbind_rel _ _ _ _ _ _ _ _ _ R (lin_nodup _ _ _ (LIN d IN)) LC BD)); [|apply hframe_eq_refl].
  rewrite attach_names. exact (bind_ids _ _ _ BD).
Qed.


Lemma sim_let c v t tag args next he hs st pc :
  hcfg c (Let v t tag args next) he hs st pc -> sim_step c (Let v t tag args next) he hs st pc.
Proof.
  intros H. pose proof H as [LC0 AN (code & lc & lc' & CS & CA & LA) R NM HI OK].
  destruct (hinv_invA p _ _ _ HI) as (hl & fl & cl0 & IA).
  pose proof LC0 as LC. cbn [lin_check] in LC. apply andb_true_iff in LC as [_ LC].
  destruct (split_lastn (List.length args) c) as [[c0 tl]|] eqn:SPL; [|discriminate].
  apply split_lastn_Some in SPL as [-> SPLn].
  apply andb_true_iff in LC as [LC LCn]. apply andb_true_iff in LC as [CM AO].
  apply ctx_match_Prop in CM as [IDS SKT].
  assert (TN : exists tn, ty_name t = Some tn).
  { unfold args_ok, lookup_xtor, type_xtors in AO. destruct t as [|tn]; [discriminate|]. cbn. eauto. }
  destruct TN as (tn & TN).
  destruct (env_split _ _ _ (hr_ids R)) as (he0 & fs & -> & SL & L0 & LF & IDE). rewrite SPLn in SL.
  assert (HS : hstep p (he0 ++ fs) hs (Let v t tag args next) =
               HStep [Heap.OAllocObj (map store_ptr fs)] (he0 ++ [(v, VObj tn tag (map h_val fs), fst (Heap.alloc_object (map store_ptr fs) hs))]) next None).
  { cbn [hstep]. rewrite TN, SL, IDE, IDS, ids_eqb_refl. reflexivity. }
  pose proof (hinv_step p LP _ _ _ _ _ _ _ HI HS) as HI'.
  cbn [hrun fold_left Heap.step] in HI'.
  destruct (hinv_regs_nz p _ _ _ HI') as [HH0 HF0].
  cbn [ann_check] in AN. rewrite <- SPLn, split_lastn_app in AN.
  destruct (hsim_let im p _ _ hs st sp v t tag args next lc code lc' pc he0 fs tn hl fl cl0 R LC0 CS CA LA TN SL IA
              (hi_p03 _ _ _ _ HI) (hinv_ptrs_ok p _ _ _ HI) (hinv_fit0 p _ _ _ HI') HH0 HF0)
    as (c12 & c3 & lc1 & s' & -> & NX & LCn' & X & R' & FE).
  rewrite firstn_app_exact in NX, LCn', R' by exact SPLn.
  apply code_at_app in CA as [_ CA3]. apply labels_at_nh_app in LA as [_ LA3].
  apply (sim_step_silent (c0 ++ [mkb v Prd t]) s' _ c3 lc1 lc' H HS X LCn' AN NX CA3 LA3 R'); [|exact FE].
  apply names_push; [exact (names_prefix NM L0)|reflexivity].
Qed.

(* a context that ends in `b`: the environment has a last entry (the scrutinee of Switch, the closure of Invoke) *)
Lemma hrel_last_ex {c0 b he hs st} :
  hrel (c0 ++ [b]) he hs st sp ->
  exists he0 x val q, he = he0 ++ [(x, val, q)] /\ List.length he0 = List.length c0 /\ idn x = idn (bvar b) /\
                      hvrep (ptypes p) CLO st sp (List.length c0) b val q.
Proof.
  intros R. pose proof (hrel_length R) as LEN. rewrite app_length in LEN. cbn [List.length] in LEN.
  destruct (exists_last (l := he)) as (he0 & [[x val] q] & ->); [intros ->; cbn in LEN; lia|].
  exists he0, x, val, q. split; [reflexivity|]. exact (hrel_last R).
Qed.

Lemma sim_switch c v t cls he hs st pc : hcfg c (Switch v t cls) he hs st pc -> sim_step c (Switch v t cls) he hs st pc.
Proof.
  intros H. pose proof H as [LC0 AN (code & lc & lc' & CS & CA & LA) R NM HI OK].
  destruct (hinv_invA p _ _ _ HI) as (hl & fl & cl0 & IA).
  pose proof LC0 as LC. rewrite lin_check_switch in LC. apply andb_true_iff in LC as [_ LC].
  destruct (split_lastn 1 c) as [[c0 [|b [|b' r]]]|] eqn:SLc; try discriminate.
  apply split_lastn_Some in SLc as [-> _].
  apply andb_true_iff in LC as [LC LCc]. apply andb_true_iff in LC as [LC CO]. apply andb_true_iff in LC as [LC TY].
  apply andb_true_iff in LC as [IDb CH]. apply N.eqb_eq in IDb. apply ty_eqb_eq in TY. apply chi_eqb_eq in CH.
  destruct (hrel_last_ex R) as (he0 & x & val & q & -> & L0 & IDX & V). rewrite IDb in IDX.
  inversion V as [? z ? ? KE ?|b1 v1 q1 dw t1 t2 NE K1 K2 T1 T2 L1 L2 X]; subst; [congruence|].
  destruct val as [z|tn tag fs|tn cls' ce]; cbn in K1; try congruence. cbn in K2. rewrite <- K2 in *.
  inversion X as [|tn1 tag1 fs1 q1 a1 TW XF|]; subst.
  destruct TW as (d & k' & xk & FD & XP' & _ & FX & SK).
  pose proof CO as CO'. unfold cls_ok, type_xtors in CO'. cbn [sigs_of sg_types] in CO'. rewrite FD in CO'.
  destruct (find_clause_total cls (txtors d) tag xk CO' FX) as (cl & FC).
  destruct (find_clause_pos cls (txtors d) tag cl 0%N CO' FC) as (k & xk0 & Hk & Hxk & XP & FX' & SMk).
  assert (xk0 = xk) by congruence. subst xk0.
  destruct (bind_total (vars (cl_ctx cl)) fs) as (e1 & BD).
  { apply sig_match_iff, same_kt_length in SMk. apply Forall2_len in SK. unfold vars. rewrite map_length. lia. }
  unfold henv, hentry in *.
  assert (HS : hstep p (he0 ++ [(x, VObj tn tag fs, q)]) hs (Switch v (Decl tn) cls) =
               HStep (load_ops (List.length (cl_ctx cl)) q) (he0 ++ attach e1 (load_ptrs hs (List.length (cl_ctx cl)) q)) (cl_body cl) None).
  { cbn [hstep]. rewrite split_last1_app. apply N.eqb_eq in IDX. rewrite IDX, FC, BD. reflexivity. }
  assert (RF : exists lk, fs <> [] -> HeapRep.rep_flds lk (Heap.m hs) fs q).
  { destruct (hinv_last_rep p _ _ _ _ _ _ HI) as (lk & RP). exists lk. intros _. inversion RP; subst. assumption. }
  destruct RF as (lk & RFlk).
  pose proof (type_nh _ _ CO) as NHL.
  destruct (hsim_switch im p IMG BACK SMALL _ _ hs st sp v (Decl tn) cls lc code lc' pc he0 x tn tag fs q cl e1 lk hl fl cl0 R LC0 CS CA LA NHL
              (split_last1_app _ _) FC BD IA (hi_p03 _ _ _ _ HI) ltac:(pose proof (hinv_fit0 p _ _ _ HI); lia) RFlk)
    as (pcb & lcb & cb & lcb' & s' & X' & CSb & CAb & LAb & LCb & R' & FE).
  rewrite removelast_last in CSb, LCb, R'.
  rewrite ann_check_switch in AN. change 1%nat with (List.length [b]) in AN. rewrite split_lastn_app in AN.
  unfold ann_clauses_sw in AN. rewrite forallb_forall in AN.
  apply (sim_step_silent (c0 ++ cl_ctx cl) s' pcb cb lcb lcb' H HS X' LCb (AN cl (find_clause_in _ _ _ FC)) CSb CAb LAb R'); [|exact FE].
  rewrite map_h_id_app, (names_prefix NM L0), attach_names, (bind_ids _ _ _ BD). unfold vars. now rewrite map_app.
Qed.

Lemma sim_create c v t env cls next he hs st pc :
  hcfg c (Create v t env cls next) he hs st pc -> sim_step c (Create v t env cls next) he hs st pc.
Proof.
  intros H. pose proof H as [LC0 AN (code & lc & lc' & CS & CA & LA) R NM HI OK].
  destruct (hinv_invA p _ _ _ HI) as (hl & fl & cl0 & IA).
  pose proof LC0 as LC.
  destruct env as [env|]; [|cbn [lin_check] in LC; apply andb_true_iff in LC as [_ LC]; discriminate].
  rewrite lin_check_create in LC. apply andb_true_iff in LC as [_ LC].
  destruct (split_lastn (List.length env) c) as [[c0 tl]|] eqn:SPL; [|discriminate].
  pose proof SPL as SPL0. apply split_lastn_Some in SPL as [-> SPLn].
  apply andb_true_iff in LC as [LC LCn]. apply andb_true_iff in LC as [LC LCc]. apply andb_true_iff in LC as [CM CO].
  apply ctx_match_Prop in CM as [IDS SKT].
  rewrite ann_check_create, SPL0 in AN. apply andb_true_iff in AN as [AN ANn]. apply andb_true_iff in AN as [ANe ANc].
  apply ctx_eqb_eq in ANe. subst tl.
  assert (TN : exists tn, t = Decl tn).
  { unfold cls_ok, type_xtors in CO. destruct t as [|tn]; [discriminate|eauto]. }
  destruct TN as (tn & ->).
  destruct (env_split _ _ _ (hr_ids R)) as (he0 & cap & -> & SL & L0 & LF & IDE).
  destruct (bind_total (vars env) (map h_val cap)) as (ce & BDc).
  { unfold vars. rewrite !map_length. lia. }
  assert (HS : hstep p (he0 ++ cap) hs (Create v (Decl tn) (Some env) cls next) =
               HStep [Heap.OAllocObj (map store_ptr cap)] (he0 ++ [(v, VClo tn cls ce, fst (Heap.alloc_object (map store_ptr cap) hs))]) next None).
  { cbn [hstep ty_name]. rewrite SL, IDE, ids_eqb_refl, BDc. reflexivity. }
  pose proof (hinv_step p LP _ _ _ _ _ _ _ HI HS) as HI'.
  cbn [hrun fold_left Heap.step] in HI'.
  destruct (hinv_regs_nz p _ _ _ HI') as [HH0 HF0].
  pose proof (type_nh _ _ CO) as NHL.
  assert (SKP : skipn (List.length (c0 ++ env) - List.length env) (c0 ++ env) = env).
  { rewrite app_length. replace (List.length c0 + List.length env - List.length env)%nat with (List.length c0) by lia.
    rewrite skipn_app, skipn_all, Nat.sub_diag. reflexivity. }
  destruct (hsim_create im p IMG BACK SMALL _ _ hs st sp v (Decl tn) env cls next lc code lc' pc he0 cap tn ce hl fl cl0
              R LC0 SKP ANc CS CA LA NHL eq_refl SL BDc IA (hi_p03 _ _ _ _ HI) (hinv_ptrs_ok p _ _ _ HI) (hinv_fit0 p _ _ _ HI') HH0 HF0)
    as (c12 & c3 & lc2 & lc3 & rest' & s' & -> & NX & LCn' & X & R' & FE).
  rewrite firstn_app_exact in NX, LCn', R' by reflexivity.
  apply code_at_app in CA as [_ CA3]. apply code_at_app in CA3 as [CA3 _].
  apply labels_at_nh_app in LA as [_ LA3]. apply labels_at_nh_app in LA3 as [LA3 _].
  apply (sim_step_silent (c0 ++ [mkb v Cns (Decl tn)]) s' _ c3 lc2 lc3 H HS X LCn' ANn NX CA3 LA3 R'); [|exact FE].
  apply names_push; [exact (names_prefix NM L0)|reflexivity].
Qed.

Lemma sim_invoke c v tag t args he hs st pc : hcfg c (Invoke v tag t args) he hs st pc -> sim_step c (Invoke v tag t args) he hs st pc.
Proof.
  intros H. pose proof H as [LC0 AN (code & lc & lc' & CS & CA & LA) R NM HI OK].
  destruct (hinv_invA p _ _ _ HI) as (hl & fl & cl0 & IA).
  pose proof LC0 as LC. cbn [lin_check] in LC. apply andb_true_iff in LC as [_ LC].
  destruct (split_lastn 1 c) as [[c0 [|b [|b' r]]]|] eqn:SLc; try discriminate.
  apply split_lastn_Some in SLc as [-> _].
  apply andb_true_iff in LC as [LC AO]. apply andb_true_iff in LC as [LC TY]. apply andb_true_iff in LC as [IDb CH].
  apply N.eqb_eq in IDb. apply ty_eqb_eq in TY. apply chi_eqb_eq in CH.
  destruct (hrel_last_ex R) as (he0 & x & val & q & -> & L0 & IDX & V). rewrite IDb in IDX.
  inversion V as [? z ? ? KE ?|b1 v1 q1 a t1 t2 NE K1 K2 T1 T2 L1 L2 X]; subst; [congruence|].
  destruct val as [z|tn tag0 fs|tn cls ce]; cbn in K1; try congruence. cbn in K2.
  inversion X as [| |tn1 cls1 ce1 q1 a1 CLOa XF]; subst.
  pose proof CLOa as (CO & _ & _).
  rewrite <- K2 in *. unfold cls_ok, type_xtors in CO. cbn [sigs_of sg_types] in CO.
  unfold args_ok, lookup_xtor, type_xtors in AO. cbn [sigs_of sg_types] in AO.
  destruct (find (fun d => ident_eqb (tname d) tn) (ptypes p)) as [d|] eqn:FD; [|discriminate].
  destruct (find (fun x => ident_eqb (xname x) tag) (txtors d)) as [xk|] eqn:FX; [|discriminate].
  destruct (find_clause_total cls (txtors d) tag xk CO FX) as (cl & FC).
  destruct (find_clause_pos cls (txtors d) tag cl 0%N CO FC) as (k & xk' & Hk & Hxk & XP & FX' & SMk).
  assert (xk' = xk) by congruence. subst xk'.
  destruct (bind_total (vars (cl_ctx cl)) (map snd (erase_env he0))) as (e1 & BD).
  { apply sig_match_iff, same_kt_length in AO. apply sig_match_iff, same_kt_length in SMk. unfold vars, erase_env. rewrite !map_length. unfold hentry in *. lia. }
  unfold henv, hentry in *.
  assert (HS : hstep p (he0 ++ [(x, VClo tn cls ce, q)]) hs (Invoke v tag (Decl tn) args) =
               HStep (load_ops (List.length ce) q) (attach e1 (ptrs he0) ++ attach ce (load_ptrs hs (List.length ce) q)) (cl_body cl) None).
  { cbn [hstep]. rewrite split_last1_app. apply N.eqb_eq in IDX. rewrite IDX, FC, BD. reflexivity. }
  assert (RF : exists lk, ce <> [] -> HeapRep.rep_flds lk (Heap.m hs) (map snd ce) q).
  { destruct (hinv_last_rep p _ _ _ _ _ _ HI) as (lk & RP). exists lk. intros _. inversion RP; subst. assumption. }
  destruct RF as (lk & RFlk).
  destruct (hsim_invoke im p _ _ hs st sp v tag (Decl tn) args code lc lc' pc he0 x tn cls ce q cl e1 lk hl fl cl0
              R ENC (split_last1_app _ _) FC BD LC0 CS CA IA (hi_p03 _ _ _ _ HI) ltac:(pose proof (hinv_fit0 p _ _ _ HI); lia) RFlk)
    as (pcb & lcb & cb & lcb' & s' & X' & CSb & CAb & LAb & LCb & ANb & R' & FE).
  apply (sim_step_silent (cl_ctx cl ++ ctx_of_env ce) s' pcb cb lcb lcb' H HS X' LCb ANb CSb CAb LAb R'); [|exact FE].
  rewrite map_h_id_app, !attach_names. unfold vars at 1. rewrite map_app. fold (vars (cl_ctx cl)) (vars (ctx_of_env ce)).
    rewrite vars_ctx_of_env. f_equal. exact (bind_ids _ _ _ BD).
Qed.

Lemma sim_literal c n v next he hs st pc : hcfg c (Literal n v next) he hs st pc -> sim_step c (Literal n v next) he hs st pc.
Proof.
  intros H. pose proof H as [LC AN (code & lc & lc' & CS & CA & LA) R NM HI OK].
  cbn [lin_check] in LC. apply andb_true_iff in LC as [_ LC]. cbn [ann_check] in AN.
  assert (HS : hstep p he hs (Literal n v next) = HStep [] (he ++ [(v, VInt n, 0)]) next None) by reflexivity.
  destruct (cs_literal _ _ _ _ _ _ _ _ CS) as (tv & c2 & TV & NX & ->).
  destruct (hsim_literal im (ptypes p) CLO c he hs st sp n v tv R (lin_nodup _ _ _ LC) TV) as (s' & E & R' & FE).
  apply code_at_app in CA as [CA1 CA2]. apply labels_at_nh_app in LA as [_ LA2].
  apply (sim_step_silent (c ++ [mkb v Ext I64]) s' _ c2 lc lc' H HS
           (exec_straight_exec_to im _ pc st s' CA1 E) LC AN NX CA2 LA2 R'); [|exact (frame_eq_hframe _ _ _ FE)].
  apply names_push; [exact NM|reflexivity].
Qed.

Lemma sim_op c a op b v next he hs st pc : hcfg c (Op a op b v next) he hs st pc -> sim_step c (Op a op b v next) he hs st pc.
Proof.
  intros H. pose proof H as [LC AN (code & lc & lc' & CS & CA & LA) R NM HI OK].
  cbn [lin_check] in LC. apply andb_true_iff in LC as [_ LC]. apply andb_true_iff in LC as [LCo LC].
  apply andb_true_iff in LCo as [HA HB]. cbn [ann_check] in AN.
  destruct (hhas_ext_lookup_int (ptypes p) CLO c he hs st sp a R HA) as (x & LA1).
  destruct (hhas_ext_lookup_int (ptypes p) CLO c he hs st sp b R HB) as (y & LB1).
  destruct (cs_op _ _ _ _ _ _ _ _ _ _ CS) as (tv & ta & tb & c2 & TV & TA & TB & NX & ->).
  apply code_at_app in CA as [CA1 CA2]. apply labels_at_nh_app in LA as [_ LA2].
  destruct (eval_op op x y) as [z|w] eqn:EV.
  - assert (HS : hstep p he hs (Op a op b v next) = HStep [] (he ++ [(v, VInt z, 0)]) next None) by (cbn [hstep]; now rewrite LA1, LB1, EV).
    destruct (hsim_op im (ptypes p) CLO c he hs st sp a op b v x y z tv ta tb R (lin_nodup _ _ _ LC) LA1 LB1 EV TV TA TB) as (s' & E & R' & FE).
    apply (sim_step_silent (c ++ [mkb v Ext I64]) s' _ c2 lc lc' H HS
             (exec_straight_exec_to im _ pc st s' CA1 E) LC AN NX CA2 LA2 R'); [|exact (frame_eq_hframe _ _ _ FE)].
    apply names_push; [exact NM|reflexivity].
  - assert (HS : hstep p he hs (Op a op b v next) = HEnd (OUndef w)) by (cbn [hstep]; now rewrite LA1, LB1, EV).
    unfold sim_step. rewrite HS.
    destruct (hsim_op_undef im (ptypes p) CLO c he hs st sp a op b v x y w tv ta tb R (lin_nodup _ _ _ LC) LA1 LB1 EV TV TA TB) as (s' & E & O).
    rewrite <- O. eapply exec_undef_finishes; eauto.
Qed.

Lemma sim_print c nl v next he hs st pc : hcfg c (PrintI64 nl v next) he hs st pc -> sim_step c (PrintI64 nl v next) he hs st pc.
Proof.
  intros H. pose proof H as [LC AN (code & lc & lc' & CS & CA & LA) R NM HI OK].
  cbn [lin_check] in LC. apply andb_true_iff in LC as [_ LC]. apply andb_true_iff in LC as [HV LC]. cbn [ann_check] in AN.
  destruct (hhas_ext_lookup_int (ptypes p) CLO c he hs st sp v R HV) as (z & LV).
  assert (HS : hstep p he hs (PrintI64 nl v next) = HStep [] he next (Some (nl, z))) by (cbn [hstep]; now rewrite LV).
  destruct (cs_print _ _ _ _ _ _ _ _ CS) as (tv & c2 & TV & NX & ->).
  destruct (hsim_print im (ptypes p) CLO c he hs st sp nl v z tv R LV TV) as (s' & E & R' & O & AE).
  apply code_at_app in CA as [CA1 CA2]. apply labels_at_nh_app in LA as [_ LA2].
  apply (sim_step_intro c s' _ c2 lc lc' H HS (exec_straight_exec_to im _ pc st s' CA1 E) LC AN NX CA2 LA2 R' NM).
  - exact (above_eq_outer _ _ _ AE OK).
  - exact O.
Qed.

Lemma sim_ifc c so a b thenc elsec he hs st pc :
  hcfg c (IfC so a b thenc elsec) he hs st pc -> sim_step c (IfC so a b thenc elsec) he hs st pc.
Proof.
  intros H. pose proof H as [LC AN (code & lc & lc' & CS & CA & LA) R NM HI OK].
  cbn [lin_check] in LC. apply andb_true_iff in LC as [_ LC].
  apply andb_true_iff in LC as [LC LCe]. apply andb_true_iff in LC as [LCo LCt]. apply andb_true_iff in LCo as [HA HB].
  cbn [ann_check] in AN. apply andb_true_iff in AN as [ANt ANe].
  destruct (hhas_ext_lookup_int (ptypes p) CLO c he hs st sp a R HA) as (x & LA1).
  assert (LB1 : exists y, match b with Some b0 => lookup_int (erase_env he) b0 | None => Some 0 end = Some y).
  { destruct b as [b|]; [|eauto]. exact (hhas_ext_lookup_int (ptypes p) CLO c he hs st sp b R HB). }
  destruct LB1 as (y & LB1).
  assert (HS : hstep p he hs (IfC so a b thenc elsec) = HStep [] he (if eval_cmp so x y then thenc else elsec) None) by (cbn [hstep]; now rewrite LA1, LB1).
  destruct (hsim_ifc im (ptypes p) CLO c he hs st sp so a b x y thenc elsec lc code lc' pc R LA1 LB1 CS CA LA)
    as (c1 & c2 & lc2 & c3 & s' & -> & EL & TH & X & R' & FE).
  apply frame_eq_hframe in FE.
  apply code_at_app in CA as [_ CA]. apply code_at_app in CA as [CA2 CA]. apply code_at_app in CA as [_ CA3].
  apply labels_at_nh_app in LA as [_ LA]. apply labels_at_nh_app in LA as [LA2 LA]. apply labels_at_nh_app in LA as [_ LA3].
  rewrite <- !padd_add in CA3, LA3. cbn [List.length] in CA3, LA3. rewrite Nat.add_assoc in CA3, LA3.
  destruct (eval_cmp so x y).
  - exact (sim_step_silent c s' _ c3 lc2 lc' H HS X LCt ANt TH CA3 LA3 R' NM FE).
  - exact (sim_step_silent c s' _ c2 _ lc2 H HS X LCe ANe EL CA2 LA2 R' NM FE).
Qed.

Lemma sim_exit c v he hs st pc : hcfg c (Exit v) he hs st pc -> sim_step c (Exit v) he hs st pc.
Proof.
  intros [LC AN (code & lc & lc' & CS & CA & LA) R NM HI OK].
  cbn [lin_check] in LC. apply andb_true_iff in LC as [_ HV].
  destruct (hhas_ext_lookup_int (ptypes p) CLO c he hs st sp v R HV) as (z & LV).
  assert (HS : hstep p he hs (Exit v) = HEnd (OExit z)) by (cbn [hstep]; now rewrite LV).
  unfold sim_step. rewrite HS.
  destruct (cs_exit _ _ _ _ _ _ CS) as (tv & TV & -> & _).
  destruct (hsim_exit_mov im (ptypes p) CLO c he hs st sp v z tv R LV TV) as (s' & E & RAX & F' & FE).
  apply code_at_app in CA as [CA1 CA2]. apply code_at_cons in CA2 as [CJ _].
  destruct CLEAN as (pcc & FL & CAc).
  eapply exec_to_finishes; [apply (exec_straight_exec_to im _ pc st s' CA1 E)|].
  eapply exec_to_finishes.
  { eapply exec_jump; [exact CJ|cbn [step]; unfold goto_label; rewrite FL; reflexivity|apply exec_refl]. }
  rewrite <- (proj1 (proj2 FE)).
  exact (epilogue_ok im pcc s' sp z CAc F' (frame_eq_outer _ _ _ (proj2 (hr_frame R)) FE OK) RAX).
Qed.

Theorem hsim_step c s he hs st pc : hcfg c s he hs st pc -> sim_step c s he hs st pc.
Proof.
  destruct s; [apply sim_substitute|apply sim_call|apply sim_let|apply sim_switch|apply sim_create|apply sim_invoke
              |apply sim_literal|apply sim_op|apply sim_print|apply sim_ifc|apply sim_exit].
Qed.

Lemma hsim_run : forall fuel s c he hs tr st pc,
  hcfg c s he hs st pc -> not_oof (fst (fst (hexec fuel p (mkhc he hs s) (out st) tr))) ->
  finishes im pc st (fst (fst (hexec fuel p (mkhc he hs s) (out st) tr))).
Proof.
  induction fuel as [|fuel IH]; intros s c he hs tr st pc H G; [exfalso; apply G; reflexivity|].
  cbn [hexec hc_env hc_heap hc_stmt] in G |- *.
  pose proof (hsim_step _ _ _ _ _ _ H) as S. unfold sim_step in S.
  destruct (hstep p he hs s) as [ops he' s' pr|o]; [|exact S].
  destruct S as (c' & st' & pc' & X & H' & O). rewrite <- O in G |- *.
  exact (exec_to_finishes _ _ _ _ _ _ X (IH _ _ _ _ _ _ _ H' G)).
Qed.

Lemma hsim_exec : forall fuel s c he hs ot tr st pc code lc lc',
  lin_check (sigs_of p) c s = true -> ann_check c s = true ->
  xcs (ptypes p) s c lc = Ok (code, lc') -> code_at im pc code -> labels_at_nh im pc code ->
  hrel c he hs st sp -> map h_id he = vars c -> hinv he hs s -> outer_ok st sp -> out st = ot ->
  not_oof (fst (fst (hexec fuel p (mkhc he hs s) ot tr))) ->
  finishes im pc st (fst (fst (hexec fuel p (mkhc he hs s) ot tr))).
Proof.
  intros fuel s c he hs ot tr st pc code lc lc' LC AN CS CA LA R NM HI OK <-.
  apply (hsim_run fuel s c). split; eauto 6.
Qed.
End MainH.
