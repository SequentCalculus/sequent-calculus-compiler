(* C06/C07/C08, heap statements: facts about the abstract allocator (Model/Heap.v) that the back-end
   simulations need and that follow from the invariant InvA of Proof/HeapMore.v: every header of a block is
   a small non-negative number (a free-list link below the frontier, or a reference count bounded by the
   number of references); one `alloc` acquires the reserved block, which is not reachable from the roots,
   keeps everything reachable and does not move the frontier back; the roots between two rounds of
   `store_other`. *)
From Coq Require Import List ZArith Lia Bool Permutation.
From SCC Require Import Model.Heap Proof.HeapMore Proof.HeapTrace Proof.HeapRep Proof.HeapRepAlloc.
Import ListNotations.
Open Scope Z_scope.

Lemma cnt_le_length l b : cnt l b <= Z.of_nat (length l).
Proof.
  unfold cnt. induction l as [|a l IH]; cbn [count_occ length]; [lia|].
  destruct (Z.eq_dec a b); lia.
Qed.
Lemma chain_hdr mm stop : forall a l, chain mm stop a l -> forall x, In x l -> hdr (mm x) = stop \/ In (hdr (mm x)) l.
Proof.
  induction 1 as [|a l Ha Hc IH]; intros x Hx; [destruct Hx|].
  destruct Hx as [<-|Hx].
  - inversion Hc; subst; [now left|right; right; now left].
  - destruct (IH x Hx) as [E|E]; [now left|right; now right].
Qed.
Lemma length_flat_map_le (f : Z -> list Z) k : (forall x, (length (f x) <= k)%nat) ->
  forall l, (length (flat_map f l) <= k * length l)%nat.
Proof. intros H. induction l as [|a l IH]; cbn [flat_map length]; [lia|]. rewrite app_length. specialize (H a). lia. Qed.

Lemma list_blk base s R hl fl cl a : InvA base s R hl fl cl -> In a (hl ++ fl ++ cl) -> blk base a /\ 0 < a < frontier s.
Proof. intros [I X] Ha. split; [apply (x_al _ _ _ _ _ X a Ha)|apply (i_below _ _ _ _ _ I a Ha)]. Qed.

Lemma hdr_bounds base s R hl fl cl :
  InvA base s R hl fl cl -> (forall x, (length (ps (m s x)) <= 3)%nat) -> 0 < base ->
  forall x, blk base x ->
    0 <= hdr (m s x) <= Z.max (frontier s) (Z.of_nat (length R) + 3 * Z.of_nat (length (cl ++ fl))).
Proof.
  intros IA P3 Hb x Hx. pose proof (proj1 IA) as I. pose proof (proj2 IA) as X.
  pose proof (i_front _ _ _ _ _ I) as HF.
  destruct (Z_lt_ge_dec x (frontier s)) as [Hlt|Hge].
  2:{ rewrite (i_fresh _ _ _ _ _ I x) by lia. cbn. lia. }
  pose proof (x_tot _ _ _ _ _ X x Hx Hlt) as Hin.
  rewrite !in_app_iff in Hin. destruct Hin as [Hh|[Hf|Hc]].
  - destruct (chain_hdr _ _ _ _ (i_hl _ _ _ _ _ I) x Hh) as [E|E]; [rewrite E; lia|].
    pose proof (i_below _ _ _ _ _ I (hdr (m s x)) ltac:(rewrite !in_app_iff; auto)). lia.
  - destruct (chain_hdr _ _ _ _ (i_fl _ _ _ _ _ I) x Hf) as [E|E]; [rewrite E; lia|].
    pose proof (i_below _ _ _ _ _ I (hdr (m s x)) ltac:(rewrite !in_app_iff; auto)). lia.
  - pose proof (x_pos _ _ _ _ _ X x Hc) as Hp. pose proof (i_rc _ _ _ _ _ I x Hc) as Hrc.
    pose proof (cnt_le_length (refs (m s) R cl fl) x) as Hle. unfold refs in Hle, Hrc. rewrite app_length in Hle.
    pose proof (length_flat_map_le (fun y => ps (m s y)) 3 P3 (cl ++ fl)). lia.
Qed.

Lemma in_use_bound base s R hl fl cl :
  InvA base s R hl fl cl -> Z.of_nat (length (cl ++ fl)) * 64 <= frontier s - base.
Proof.
  intros [_ X]. pose proof (x_sz _ _ _ _ _ X) as E. unfold BLOCK in E. rewrite !app_length in *. lia.
Qed.

Lemma alloc_stage base s R R0 hl fl cl sl :
  InvA base s R hl fl cl -> Permutation R (nz sl ++ R0) ->
  fst (alloc sl s) = heap s /\ heap s <> 0 /\
  (exists hl' fl' cl', InvA base (snd (alloc sl s)) (heap s :: R0) hl' fl' cl') /\
  frontier s <= frontier (snd (alloc sl s)) /\
  ~ reach (m s) R (heap s) /\
  (forall b, reach (m s) R b -> reach (m (snd (alloc sl s))) (heap s :: R0) b).
Proof.
  intros IA HP. pose proof (proj1 IA) as I.
  destruct (alloc_invA base s R R0 hl fl cl sl IA HP) as [Hfst (hl' & fl' & cl' & IA' & FR & _)].
  destruct (heap_not_counted _ _ _ _ _ I) as [Hrcl Hrfl].
  assert (Hr0 : heap s <> 0) by (eapply heap_nonzero; eauto).
  set (r := heap s) in *. set (s' := snd (alloc sl s)) in *.
  assert (Hps : forall b, ps (m s' b) = if b =? r then sl else ps (m s b)) by (intros; apply alloc_ps).
  assert (Hpsr : ps (m s' r) = sl) by (rewrite Hps, Z.eqb_refl; reflexivity).
  assert (Hpso : forall b, b <> r -> ps (m s' b) = ps (m s b)).
  { intros b Hb. rewrite Hps. destruct (Z.eqb_spec b r); congruence. }
  assert (Hnr : ~ reach (m s) R r) by (intros Hr; apply Hrcl; eapply reach_root_counted; eauto).
  split; [exact Hfst|]. split; [exact Hr0|]. split; [eauto|]. split.
  { destruct FR as [[E _]|[E _]]; lia. }
  split; [exact Hnr|].
  induction 1 as [b Hb Hb0|x b Hx IH Hb Hb0].
  - apply (Permutation_in _ HP) in Hb. apply in_app_iff in Hb as [Hb|Hb].
    + apply in_nz in Hb as [Hb _]. eapply reach_slot; [apply reach_src; [now left|exact Hr0]| |exact Hb0]. now rewrite Hpsr.
    + apply reach_src; auto. now right.
  - eapply reach_slot; [exact IH| |exact Hb0]. rewrite Hpso; [exact Hb|]. intros ->. contradiction.
Qed.

(* the roots before a round of store_other, rearranged for alloc_stage *)
Lemma stage_perm rest link R0 : link <> 0 -> rest <> [] ->
  Permutation (link :: nz rest ++ R0) (nz (pad 2 (lastn 2 rest) ++ [link]) ++ (nz (butlastn 2 rest) ++ R0)).
Proof.
  intros Hl _. rewrite nz_app, nz_pad, nz_single by auto.
  pose proof (nz_split_last 2 rest) as HS.
  apply perm_of_cnt. intros b. repeat (rewrite ?cnt_app, ?cnt_cons). change (cnt [] b) with 0.
  rewrite (cnt_perm _ _ b HS), cnt_app. lia.
Qed.
Lemma first_perm fields R R0 : Permutation R (nz fields ++ R0) ->
  Permutation R (nz (pad 3 (lastn 3 fields)) ++ (nz (butlastn 3 fields) ++ R0)).
Proof.
  intros HR. etransitivity; [exact HR|]. rewrite nz_pad, app_assoc. apply Permutation_app_tail. apply nz_split_last.
Qed.

Lemma nz_length_le l : (length (nz l) <= length l)%nat.
Proof. unfold nz. induction l as [|a l IH]; cbn [filter length]; [lia|]. destruct (negb (a =? 0)); cbn [length]; lia. Qed.
Lemma stage_roots_len rest link (R0 : list Z) :
  (length (link :: nz (butlastn 2 rest) ++ R0) <= length (link :: nz rest ++ R0))%nat.
Proof.
  cbn [length]. rewrite !app_length. pose proof (nz_split_last 2 rest) as HS. apply Permutation_length in HS.
  rewrite app_length in HS. lia.
Qed.
