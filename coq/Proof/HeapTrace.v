(* The operation-trace theorem for the abstract allocator (every state reachable by operations
   whose preconditions hold satisfies the strengthened invariant), the derived classification of
   the blocks below the frontier with its consequences (C09), and the footprint theorems (C10). *)
From Coq Require Import List ZArith Lia Bool Permutation.
From SCC Require Import Model.Heap Proof.HeapMore.
Import ListNotations.
Open Scope Z_scope.

Definition sub_ok (xs R : list Z) : Prop := forall b, cnt xs b <= cnt R b.

Lemma rem1_perm x l : In x l -> Permutation l (x :: rem1 x l).
Proof.
  induction l as [|y l IH]; cbn; [tauto|]. intros H. destruct (Z.eq_dec x y) as [->|Hne]; [reflexivity|].
  destruct H as [->|H]; [congruence|]. etransitivity; [apply perm_skip, IH, H|apply perm_swap].
Qed.
Lemma msub_perm : forall xs R, sub_ok xs R -> Permutation R (xs ++ msub R xs).
Proof.
  induction xs as [|x xs IH]; intros R H; cbn; [reflexivity|].
  assert (In x R) as Hin.
  { apply cnt_pos_in. specialize (H x). rewrite cnt_cons in H. destruct (Z.eq_dec x x); [|congruence].
    pose proof (cnt_nonneg xs x). lia. }
  pose proof (rem1_perm x R Hin) as HP.
  etransitivity; [exact HP|]. apply perm_skip. apply IH.
  intros b. specialize (H b). rewrite cnt_cons in H. rewrite (cnt_perm _ _ b HP), cnt_cons in H. lia.
Qed.

Definition pre (s : st) (R : list Z) (o : op) : Prop :=
  match o with
  | OShare p n => 0 <= n /\ (p = 0 \/ In p R)
  | OErase p => p = 0 \/ In p R
  | OAlloc sl => sub_ok (nz sl) R
  | OLoadRelease p => p <> 0 /\ In p R /\ hdr (m s p) = 0
  | OLoadShare p => p <> 0 /\ In p R /\ hdr (m s p) <> 0
  | OLoad p => p <> 0 /\ In p R
  | OAllocObj f => sub_ok (nz f) R
  | OLoadObjRelease k p => In p R /\ obj_ok k (m s) p
  | OLoadObjShare k p => In p R /\ hdr (m s p) <> 0 /\ links_ok k (m s) p
  | OLoadObj k p => In p R /\ links_ok k (m s) p /\ (hdr (m s p) = 0 -> obj_ok k (m s) p)
  end.

Fixpoint pre_trace (s : st) (R : list Z) (ops : list op) : Prop :=
  match ops with
  | [] => True
  | o :: r => pre s R o /\ pre_trace (step s o) (ghost s R o) r
  end.

Definition fr_step (s s' : st) (hl' : list Z) : Prop :=
  frontier s' = frontier s \/ (frontier s < frontier s' /\ length hl' = 1%nat).
Lemma fr_rel_step s hl s' hl' : fr_rel s hl s' hl' -> fr_step s s' hl'.
Proof. intros [[A _]|[A B]]; [now left|right; auto]. Qed.

Lemma links_ok_head k mm p : links_ok k mm p -> p <> 0.
Proof. intros H. apply H. destruct k; now left. Qed.

Theorem heap_inv_step base s R hl fl cl o :
  InvA base s R hl fl cl -> pre s R o ->
  exists hl' fl' cl', InvA base (step s o) (ghost s R o) hl' fl' cl' /\ fr_step s (step s o) hl'.
Proof.
  intros IA HP. destruct o as [p n|p|sl|p|p|p|f|k p|k p|k p]; cbn [pre step ghost] in *.
  - destruct HP as [Hn Hp]. exists hl, fl, cl. split; [now apply share_invA|left; apply share_frontier].
  - destruct (Z.eqb_spec p 0) as [->|Hp0].
    + exists hl, fl, cl. split; [exact IA|now left].
    + destruct HP as [|HpR]; [contradiction|].
      destruct (erase_invA base s R (rem1 p R) hl fl cl p IA Hp0 (rem1_perm _ _ HpR)) as (fl' & cl' & I1 & _).
      exists hl, fl', cl'. split; [exact I1|left; apply erase_frontier].
  - destruct (alloc_invA base s R (msub R (nz sl)) hl fl cl sl IA (msub_perm _ _ HP)) as [_ (hl' & fl' & cl' & I1 & F1 & _)].
    exists hl', fl', cl'. split; [exact I1|eapply fr_rel_step; eauto].
  - destruct HP as (Hp0 & HpR & Hh).
    destruct (release_invA base s R (rem1 p R) hl fl cl p IA Hp0 (rem1_perm _ _ HpR) Hh) as (cl' & I1 & _).
    exists (p :: hl), fl, cl'. split; [exact I1|now left].
  - destruct HP as (Hp0 & HpR & Hh).
    exists hl, fl, cl. split; [apply (load_share_invA base s R); auto using rem1_perm|].
    left. unfold load_share. now rewrite share_list_frontier.
  - destruct HP as (Hp0 & HpR). unfold load. destruct (Z.eqb_spec (hdr (m s p)) 0) as [Hh|Hh].
    + destruct (release_invA base s R (rem1 p R) hl fl cl p IA Hp0 (rem1_perm _ _ HpR) Hh) as (cl' & I1 & _).
      exists (p :: hl), fl, cl'. split; [exact I1|now left].
    + exists hl, fl, cl. split; [apply (load_share_invA base s R); auto using rem1_perm|].
      left. unfold load_share. now rewrite share_list_frontier.
  - destruct f as [|x f'].
    + cbn. exists hl, fl, cl. split; [exact IA|now left].
    + destruct (alloc_object_invA base s R (msub R (nz (x :: f'))) hl fl cl (x :: f') IA (msub_perm _ _ HP) ltac:(discriminate))
        as (hl' & fl' & cl' & I1 & _ & F1 & _).
      exists hl', fl', cl'. split; [exact I1|eapply fr_rel_step; eauto].
  - destruct HP as (HpR & HO).
    destruct (load_object_release_invA base k p s R (rem1 p R) hl fl cl IA (rem1_perm _ _ HpR) HO) as (hl' & cl' & I1 & F1).
    exists hl', fl, cl'. split; [exact I1|now left].
  - destruct HP as (HpR & Hh & HL). pose proof (links_ok_head _ _ _ HL) as Hp0.
    exists hl, fl, cl. split; [apply (load_object_share_invA base k p s R); auto using rem1_perm|].
    left. unfold load_object_share. now rewrite share_walk_frontier.
  - destruct HP as (HpR & HL & HO). pose proof (links_ok_head _ _ _ HL) as Hp0.
    unfold load_object. destruct (Z.eqb_spec (hdr (m s p)) 0) as [Hh|Hh].
    + destruct (load_object_release_invA base k p s R (rem1 p R) hl fl cl IA (rem1_perm _ _ HpR) (HO Hh)) as (hl' & cl' & I1 & F1).
      exists hl', fl, cl'. split; [exact I1|now left].
    + exists hl, fl, cl. split; [apply (load_object_share_invA base k p s R); auto using rem1_perm|].
      left. unfold load_object_share. now rewrite share_walk_frontier.
Qed.

Theorem heap_inv_trace_A base : forall ops s R hl fl cl,
  InvA base s R hl fl cl -> pre_trace s R ops ->
  exists hl' fl' cl', InvA base (fst (grun ops (s, R))) (snd (grun ops (s, R))) hl' fl' cl'.
Proof.
  induction ops as [|o ops IH]; intros s R hl fl cl IA HP; cbn [grun fold_left fst snd].
  - eauto.
  - destruct HP as [HP1 HP2]. destruct (heap_inv_step base s R hl fl cl o IA HP1) as (hl1 & fl1 & cl1 & I1 & _).
    apply (IH _ _ hl1 fl1 cl1 I1 HP2).
Qed.

Theorem heap_inv_trace : forall ops s R hl fl cl base,
  InvA base s R hl fl cl -> pre_trace s R ops ->
  exists hl' fl' cl', Inv (fst (grun ops (s, R))) (snd (grun ops (s, R))) hl' fl' cl'.
Proof.
  intros ops s R hl fl cl base IA HP. destruct (heap_inv_trace_A base ops s R hl fl cl IA HP) as (a & b & c & [I _]). eauto.
Qed.

Corollary heap_inv_reachable base ops :
  0 < base -> pre_trace (init base) [] ops ->
  exists hl fl cl, InvA base (fst (grun ops (init base, []))) (snd (grun ops (init base, []))) hl fl cl.
Proof. intros Hb. apply heap_inv_trace_A with (hl := [base]) (fl := []) (cl := []). now apply init_invA. Qed.

(* executable preconditions, to show that the premises are satisfiable *)
Fixpoint subb (xs R : list Z) : bool :=
  match xs with
  | [] => true
  | x :: r => if in_dec Z.eq_dec x R then subb r (rem1 x R) else false
  end.
Lemma cnt_rem1 x l b : In x l -> cnt (rem1 x l) b = cnt l b - (if Z.eq_dec x b then 1 else 0).
Proof. intros H. rewrite (cnt_perm _ _ b (rem1_perm x l H)), cnt_cons. lia. Qed.
Lemma subb_sound : forall xs R, subb xs R = true -> sub_ok xs R.
Proof.
  induction xs as [|x xs IH]; intros R H b; cbn in *.
  - change (cnt [] b) with 0. apply cnt_nonneg.
  - destruct (in_dec Z.eq_dec x R) as [Hin|]; [|discriminate]. specialize (IH _ H b).
    rewrite cnt_rem1 in IH by auto. rewrite cnt_cons. lia.
Qed.
Definition inb (x : Z) (l : list Z) : bool := if in_dec Z.eq_dec x l then true else false.
Lemma inb_sound x l : inb x l = true -> In x l.
Proof. unfold inb. destruct (in_dec Z.eq_dec x l); [auto|discriminate]. Qed.

Definition links_okb k mm p := forallb (fun b => negb (b =? 0)) (obj_blocks k mm p).
Definition obj_okb k (mm : mem) p := forallb (fun b => negb (b =? 0) && (hdr (mm b) =? 0)) (obj_blocks k mm p).
Lemma links_okb_sound k mm p : links_okb k mm p = true -> links_ok k mm p.
Proof. unfold links_okb, links_ok. rewrite forallb_forall. intros H b Hb. specialize (H b Hb). destruct (Z.eqb_spec b 0); [discriminate|auto]. Qed.
Lemma obj_okb_sound k mm p : obj_okb k mm p = true -> obj_ok k mm p.
Proof.
  unfold obj_okb, obj_ok. rewrite forallb_forall. intros H b Hb. specialize (H b Hb).
  apply andb_true_iff in H as [H1 H2]. destruct (Z.eqb_spec b 0); [discriminate|]. apply Z.eqb_eq in H2. auto.
Qed.

Definition preb (s : st) (R : list Z) (o : op) : bool :=
  match o with
  | OShare p n => (0 <=? n) && ((p =? 0) || inb p R)
  | OErase p => (p =? 0) || inb p R
  | OAlloc sl => subb (nz sl) R
  | OLoadRelease p => negb (p =? 0) && inb p R && (hdr (m s p) =? 0)
  | OLoadShare p => negb (p =? 0) && inb p R && negb (hdr (m s p) =? 0)
  | OLoad p => negb (p =? 0) && inb p R
  | OAllocObj f => subb (nz f) R
  | OLoadObjRelease k p => inb p R && obj_okb k (m s) p
  | OLoadObjShare k p => inb p R && negb (hdr (m s p) =? 0) && links_okb k (m s) p
  | OLoadObj k p => inb p R && links_okb k (m s) p && (negb (hdr (m s p) =? 0) || obj_okb k (m s) p)
  end.
Ltac bsplit := repeat match goal with
  | H : _ && _ = true |- _ => apply andb_true_iff in H; destruct H
  | H : negb _ = true |- _ => apply negb_true_iff in H
  | H : (_ =? _) = false |- _ => apply Z.eqb_neq in H
  | H : (_ =? _) = true |- _ => apply Z.eqb_eq in H
  | H : (_ <=? _) = true |- _ => apply Z.leb_le in H
  | H : inb _ _ = true |- _ => apply inb_sound in H
  end.
Lemma preb_sound s R o : preb s R o = true -> pre s R o.
Proof.
  destruct o; cbn [preb pre]; intros H; bsplit; auto using subb_sound, obj_okb_sound, links_okb_sound.
  - split; auto. apply orb_true_iff in H0 as [H0|H0]; bsplit; auto.
  - apply orb_true_iff in H as [H|H]; bsplit; auto.
  - split; [auto|split; [now apply links_okb_sound|]]. intros Hh. apply orb_true_iff in H0 as [H0|H0]; bsplit; [contradiction|now apply obj_okb_sound].
Qed.
Fixpoint pre_traceb (s : st) (R : list Z) (ops : list op) : bool :=
  match ops with
  | [] => true
  | o :: r => preb s R o && pre_traceb (step s o) (ghost s R o) r
  end.
Lemma pre_traceb_sound : forall ops s R, pre_traceb s R ops = true -> pre_trace s R ops.
Proof.
  induction ops as [|o ops IH]; intros s R H; cbn in *; auto.
  apply andb_true_iff in H as [H1 H2]. split; [now apply preb_sound|now apply IH].
Qed.

(* A non-trivial trace from the initial state on which every precondition holds: bump allocation,
   sharing, a five-field object over two blocks, its non-destructive and its destructive load,
   decrements, erasure onto the deferred list, a four-field object, reuse of released blocks
   (acquire case 1), recycling of deferred blocks with lazy erasure of their children, cascading
   (case 2), and bump allocation again (case 3). *)
Definition example_ops : list op :=
  [ OAlloc [0;0;0]; OShare 4096 1; OAlloc [4096;0;4096]; OShare 4160 1;
    OAllocObj [4160;0;0;4160;0]; OShare 4288 1; OLoadObj 1 4288; OLoadObj 1 4288;
    OErase 4160; OErase 4160; OErase 4160; OLoad 4160; OErase 4096; OErase 4096;
    OAllocObj [0;0;0;0]; OErase 4224;
    OAlloc [0;0;0]; OAlloc [0;0;0]; OAlloc [0;0;0]; OAlloc [0;0;0]; OAlloc [0;0;0]; OAlloc [0;0;0] ].
Example example_pre : pre_trace (init 4096) [] example_ops.
Proof. apply pre_traceb_sound. vm_compute. reflexivity. Qed.
Example example_inv :
  exists hl fl cl, InvA 4096 (fst (grun example_ops (init 4096, []))) (snd (grun example_ops (init 4096, []))) hl fl cl.
Proof. apply heap_inv_reachable; [lia|exact example_pre]. Qed.
Example example_final :
  snd (grun example_ops (init 4096, [])) = [4416; 4096; 4160; 4224; 4352; 4288] /\
  frontier (fst (grun example_ops (init 4096, []))) = 4096 + 7 * BLOCK.
Proof. vm_compute. auto. Qed.

(* reachability through pointer slots from a list of sources *)
Inductive reach (mm : mem) (src : list Z) : Z -> Prop :=
| reach_src b : In b src -> b <> 0 -> reach mm src b
| reach_slot x b : reach mm src x -> In b (ps (mm x)) -> b <> 0 -> reach mm src b.

Definition deferred_slots (s : st) (fl : list Z) : list Z := flat_map (fun x => ps (m s x)) fl.

Lemma reach_counted s R hl fl cl b :
  Inv s R hl fl cl -> reach (m s) (R ++ deferred_slots s fl) b -> In b cl.
Proof.
  intros I. induction 1 as [b Hb Hb0|x b Hx IH Hb Hb0].
  - apply in_app_iff in Hb as [Hb|Hb]; [eapply root_counted; eauto|].
    unfold deferred_slots in Hb. apply in_flat_map in Hb as (x & Hx & Hb).
    eapply (child_counted _ _ _ _ _ x b I); auto. rewrite in_app_iff; auto.
  - eapply (child_counted _ _ _ _ _ x b I); auto. rewrite in_app_iff; auto.
Qed.
Lemma reach_mono mm src src' b : incl src src' -> reach mm src b -> reach mm src' b.
Proof. intros Hi. induction 1; [apply reach_src; auto|eapply reach_slot; eauto]. Qed.

(* a counted block has a referrer: a root, or a slot of a counted or deferred block *)
Theorem no_leak base s R hl fl cl b :
  InvA base s R hl fl cl -> In b cl ->
  In b R \/ exists x, In x (cl ++ fl) /\ In b (ps (m s x)).
Proof.
  intros [I E] Hb. pose proof (i_rc _ _ _ _ _ I b Hb) as Hrc. pose proof (x_pos _ _ _ _ _ E b Hb) as Hpos.
  assert (0 < cnt (refs (m s) R cl fl) b) as Hc by lia. apply cnt_pos_in in Hc. unfold refs in Hc.
  apply in_app_iff in Hc as [Hc|Hc]; [now left|right]. apply in_flat_map in Hc. exact Hc.
Qed.

(* following referrers upward ends in a root or in a deferred block *)
Theorem counted_reached base s R hl fl cl b :
  InvA base s R hl fl cl -> In b cl ->
  reach (m s) R b \/ reach (m s) (deferred_slots s fl) b.
Proof.
  intros IA. pose proof IA as [I E]. destruct (x_ac _ _ _ _ _ E) as [rank AC].
  set (M := lmax rank cl).
  assert (forall n b, In b cl -> (M - rank b <= n)%nat ->
            reach (m s) R b \/ reach (m s) (deferred_slots s fl) b) as H.
  { induction n as [|n IH]; intros b0 Hb0 Hn.
    - assert (Hb00 : b0 <> 0) by (apply (in_below_pos _ _ _ _ _ _ I); in_lists).
      destruct (no_leak base s R hl fl cl b0 IA Hb0) as [HR|(x & Hx & Hin)]; [left; now apply reach_src|].
      apply in_app_iff in Hx as [Hx|Hx].
      + pose proof (AC x ltac:(rewrite in_app_iff; auto) b0 Hin Hb00). pose proof (lmax_ge rank cl x Hx). unfold M in Hn. lia.
      + right. apply reach_src; auto. unfold deferred_slots. apply in_flat_map. eauto.
    - assert (Hb00 : b0 <> 0) by (apply (in_below_pos _ _ _ _ _ _ I); in_lists).
      destruct (no_leak base s R hl fl cl b0 IA Hb0) as [HR|(x & Hx & Hin)]; [left; now apply reach_src|].
      apply in_app_iff in Hx as [Hx|Hx].
      + pose proof (AC x ltac:(rewrite in_app_iff; auto) b0 Hin Hb00).
        destruct (IH x Hx ltac:(lia)) as [Hr|Hr]; [left|right]; eapply reach_slot; eauto.
      + right. apply reach_src; auto. unfold deferred_slots. apply in_flat_map. eauto. }
  intros Hb. apply (H (M - rank b)%nat); auto.
Qed.

(* the classification: every block below the frontier is in exactly one of the three lists, and a
   counted block is reachable from the live variables or lies beneath a deferred block *)
Theorem classify_total_exclusive base s R hl fl cl a :
  InvA base s R hl fl cl -> blk base a -> a < frontier s ->
  (In a hl /\ ~ In a fl /\ ~ In a cl) \/
  (In a fl /\ ~ In a hl /\ ~ In a cl) \/
  (In a cl /\ ~ In a hl /\ ~ In a fl /\
   (reach (m s) R a \/ reach (m s) (deferred_slots s fl) a)).
Proof.
  intros IA Hb Ha. pose proof IA as [I E]. pose proof (x_tot _ _ _ _ _ E a Hb Ha) as Hin.
  pose proof (nodup3 hl fl cl a (i_nodup _ _ _ _ _ I)) as (N1 & N2 & N3).
  rewrite !in_app_iff in Hin. destruct Hin as [H|[H|H]].
  - left. destruct (N3 H). tauto.
  - right; left. destruct (N2 H). tauto.
  - right; right. destruct (N1 H). pose proof (counted_reached base s R hl fl cl a IA H). tauto.
Qed.
(* conversely the lists contain nothing but blocks below the frontier *)
Theorem classify_only_blocks base s R hl fl cl a :
  InvA base s R hl fl cl -> In a (hl ++ fl ++ cl) -> blk base a /\ a < frontier s.
Proof. intros [I E] Ha. split; [now apply (x_al _ _ _ _ _ E)|]. now apply (i_below _ _ _ _ _ I). Qed.

(* a block reachable from the live variables is never on a free list *)
Theorem no_use_after_release s R hl fl cl b :
  Inv s R hl fl cl -> reach (m s) R b -> In b cl /\ ~ In b hl /\ ~ In b fl.
Proof.
  intros I Hr. assert (In b cl) as Hb.
  { eapply reach_counted; eauto. eapply reach_mono; [|exact Hr]. apply incl_appl, incl_refl. }
  split; auto. apply (nodup3 hl fl cl b (i_nodup _ _ _ _ _ I)); auto.
Qed.

(* the block an operation puts on a free list (erase of the last reference: deferred list;
   destructive load: reuse list) was on neither list before, and the lists stay duplicate free *)
Theorem no_double_release s R hl fl cl p :
  Inv s R hl fl cl -> p <> 0 -> In p R ->
  ~ In p (hl ++ fl) /\
  (hdr (m s p) = 0 ->
     (exists cl', Inv (erase p s) (rem1 p R) hl (p :: fl) cl' /\ NoDup (hl ++ (p :: fl) ++ cl')) /\
     (exists cl', Inv (release p s) (nz (ps (m s p)) ++ rem1 p R) (p :: hl) fl cl' /\ NoDup ((p :: hl) ++ fl ++ cl'))).
Proof.
  intros I Hp0 HpR. split.
  - destruct (no_use_after_release s R hl fl cl p I (reach_src _ _ _ HpR Hp0)) as (_ & A & B).
    rewrite in_app_iff. tauto.
  - intros Hh. split.
    + destruct (erase_last_inv s R (rem1 p R) hl fl cl p I Hp0 (rem1_perm _ _ HpR) Hh) as (c1 & c2 & _ & I1).
      exists (c1 ++ c2). split; auto. apply (i_nodup _ _ _ _ _ I1).
    + destruct (release_inv s R (rem1 p R) hl fl cl p I Hp0 (rem1_perm _ _ HpR) Hh) as (c1 & c2 & _ & I1).
      exists (c1 ++ c2). split; auto. apply (i_nodup _ _ _ _ _ I1).
Qed.

(* C10: the footprint *)
Lemma chain_unique mm stop : forall a l1, chain mm stop a l1 -> forall l2, chain mm stop a l2 -> l1 = l2.
Proof.
  induction 1 as [|a l Ha Hc IH]; intros l2 H2; inversion H2; subst; try congruence.
  f_equal. now apply IH.
Qed.

(* blocks in use = counted + deferred; the number does not depend on the choice of the ghost lists *)
Definition in_use (base : Z) (sr : st * list Z) (n : nat) : Prop :=
  exists hl fl cl, InvA base (fst sr) (snd sr) hl fl cl /\ n = (length cl + length fl)%nat.

Lemma frontier_blocks base s R hl fl cl :
  InvA base s R hl fl cl -> frontier s - base = Z.of_nat (length hl + length fl + length cl) * BLOCK.
Proof. intros [_ E]. rewrite <- (x_sz _ _ _ _ _ E), !app_length. f_equal. lia. Qed.

Lemma in_use_unique base sr n1 n2 : in_use base sr n1 -> in_use base sr n2 -> n1 = n2.
Proof.
  intros (hl & fl & cl & IA & ->) (hl' & fl' & cl' & IA' & ->).
  pose proof (frontier_blocks _ _ _ _ _ _ IA) as F1. pose proof (frontier_blocks _ _ _ _ _ _ IA') as F2.
  assert (hl = hl') as -> by (eapply chain_unique; [apply (i_hl _ _ _ _ _ (proj1 IA))|apply (i_hl _ _ _ _ _ (proj1 IA'))]).
  unfold BLOCK in *. lia.
Qed.

Lemma hl_nonempty s R hl fl cl : Inv s R hl fl cl -> (1 <= length hl)%nat.
Proof. intros I. pose proof (i_hl_ne _ _ _ _ _ I). destruct hl; [congruence|cbn; lia]. Qed.

(* the states visited by a trace *)
Fixpoint states (ops : list op) (sr : st * list Z) : list (st * list Z) :=
  sr :: match ops with [] => [] | o :: r => states r (gstep sr o) end.
Lemma states_head ops sr : In sr (states ops sr).
Proof. destruct ops; now left. Qed.

Lemma footprint_gen base (pk : nat) : forall ops s R hl fl cl,
  InvA base s R hl fl cl -> pre_trace s R ops ->
  (forall sr n, In sr (states ops (s, R)) -> in_use base sr n -> (n <= pk)%nat) ->
  frontier s - base <= (Z.of_nat pk + 1) * BLOCK ->
  frontier (fst (grun ops (s, R))) - base <= (Z.of_nat pk + 1) * BLOCK.
Proof.
  induction ops as [|o ops IH]; intros s R hl fl cl IA HP HB H0; cbn [grun fold_left fst]; auto.
  destruct HP as [HP1 HP2]. destruct (heap_inv_step base s R hl fl cl o IA HP1) as (hl1 & fl1 & cl1 & I1 & F1).
  apply (IH _ _ hl1 fl1 cl1 I1 HP2).
  - intros sr n Hin. apply HB. cbn [states]. right. exact Hin.
  - cbn [gstep fst snd]. destruct F1 as [->|[_ L1]]; auto.
    rewrite (frontier_blocks _ _ _ _ _ _ I1), L1.
    assert (length cl1 + length fl1 <= pk)%nat.
    { apply (HB (step s o, ghost s R o)); [cbn [states]; right; apply states_head|]. exists hl1, fl1, cl1. split; auto. }
    unfold BLOCK. lia.
Qed.

Lemma frontier_le_final base : forall ops s R hl fl cl,
  InvA base s R hl fl cl -> pre_trace s R ops -> frontier s <= frontier (fst (grun ops (s, R))).
Proof.
  induction ops as [|o ops IH]; intros s R hl fl cl IA HP; cbn [grun fold_left fst]; [lia|].
  destruct HP as [HP1 HP2]. destruct (heap_inv_step base s R hl fl cl o IA HP1) as (hl1 & fl1 & cl1 & I1 & F1).
  specialize (IH _ _ hl1 fl1 cl1 I1 HP2). unfold grun in *. change (gstep (s, R) o) with (step s o, ghost s R o). destruct F1 as [E|[L _]]; lia.
Qed.
Lemma frontier_mono base : forall ops s R hl fl cl,
  InvA base s R hl fl cl -> pre_trace s R ops ->
  forall sr, In sr (states ops (s, R)) -> frontier (fst sr) <= frontier (fst (grun ops (s, R))).
Proof.
  induction ops as [|o ops IH]; intros s R hl fl cl IA HP sr Hin.
  - destruct Hin as [<-|[]]. cbn. lia.
  - cbn [states] in Hin. destruct Hin as [<-|Hin]; [eapply frontier_le_final; eauto|].
    destruct HP as [HP1 HP2]. destruct (heap_inv_step base s R hl fl cl o IA HP1) as (hl1 & fl1 & cl1 & I1 & F1).
    cbn [grun fold_left]. apply (IH _ _ hl1 fl1 cl1 I1 HP2 sr Hin).
Qed.

(* pk bounds the number of blocks in use in every state of the trace / is attained in some state *)
Definition peak_bound base ops (pk : nat) : Prop :=
  forall sr n, In sr (states ops (init base, [])) -> in_use base sr n -> (n <= pk)%nat.
Definition peak_attained base ops (pk : nat) : Prop :=
  exists sr, In sr (states ops (init base, [])) /\ in_use base sr pk.

Theorem footprint_bound base ops pk :
  0 < base -> pre_trace (init base) [] ops -> peak_bound base ops pk ->
  (frontier (fst (grun ops (init base, []))) - base) / BLOCK <= Z.of_nat pk + 1.
Proof.
  intros Hb HP HB.
  pose proof (footprint_gen base pk ops (init base) [] [base] [] [] (init_invA base Hb) HP HB) as H.
  cbn [frontier init] in H. specialize (H ltac:(unfold BLOCK; lia)).
  apply Z.div_le_upper_bound; [unfold BLOCK; lia|]. rewrite Z.mul_comm. exact H.
Qed.

(* the bound is tight: once the peak has been reached the frontier is exactly peak + 1 blocks
   above the base, and stays there *)
Theorem footprint_exact base ops pk :
  0 < base -> pre_trace (init base) [] ops -> peak_bound base ops pk -> peak_attained base ops pk ->
  frontier (fst (grun ops (init base, []))) = base + (Z.of_nat pk + 1) * BLOCK.
Proof.
  intros Hb HP HB (sr & Hin & (hl & fl & cl & IA & ->)).
  pose proof (footprint_gen base _ ops (init base) [] [base] [] [] (init_invA base Hb) HP HB) as H.
  cbn [frontier init] in H. specialize (H ltac:(unfold BLOCK; lia)).
  pose proof (frontier_mono base ops (init base) [] [base] [] [] (init_invA base Hb) HP sr Hin) as HM.
  pose proof (frontier_blocks _ _ _ _ _ _ IA) as HF. pose proof (hl_nonempty _ _ _ _ _ (proj1 IA)).
  unfold BLOCK in *. lia.
Qed.

(* space independent of the number of repetitions: two computations with the same peak of blocks in
   use (for instance 8 and 32 iterations of a loop that builds and drops a structure) end with the
   same frontier *)
Theorem loop_space_constant base ops1 ops2 pk :
  0 < base -> pre_trace (init base) [] ops1 -> pre_trace (init base) [] ops2 ->
  peak_bound base ops1 pk -> peak_attained base ops1 pk ->
  peak_bound base ops2 pk -> peak_attained base ops2 pk ->
  frontier (fst (grun ops1 (init base, []))) = frontier (fst (grun ops2 (init base, []))).
Proof. intros. rewrite (footprint_exact base ops1 pk), (footprint_exact base ops2 pk); auto. Qed.

Definition iterate (n : nat) (body : list op) : list op := concat (repeat body n).
Corollary loop_space_constant_iter base setup body n1 n2 pk :
  0 < base ->
  pre_trace (init base) [] (setup ++ iterate n1 body) -> pre_trace (init base) [] (setup ++ iterate n2 body) ->
  peak_bound base (setup ++ iterate n1 body) pk -> peak_attained base (setup ++ iterate n1 body) pk ->
  peak_bound base (setup ++ iterate n2 body) pk -> peak_attained base (setup ++ iterate n2 body) pk ->
  frontier (fst (grun (setup ++ iterate n1 body) (init base, []))) = frontier (fst (grun (setup ++ iterate n2 body) (init base, []))).
Proof. apply loop_space_constant. Qed.

(* the example trace: peak 6 blocks in use, frontier 7 blocks above the base *)
Example example_footprint :
  (frontier (fst (grun example_ops (init 4096, []))) - 4096) / BLOCK = 7.
Proof. vm_compute. reflexivity. Qed.

(* the same fact from an arbitrary reachable state: once the frontier stands at peak + 1 blocks, no
   continuation whose blocks in use stay within the peak moves it (an iteration of a loop that
   has reached its peak before) *)
Theorem frontier_stable_after_peak base (pk : nat) ops s R hl fl cl :
  InvA base s R hl fl cl -> pre_trace s R ops ->
  (forall sr n, In sr (states ops (s, R)) -> in_use base sr n -> (n <= pk)%nat) ->
  frontier s - base = (Z.of_nat pk + 1) * BLOCK ->
  frontier (fst (grun ops (s, R))) = frontier s.
Proof.
  intros IA HP HB HF.
  pose proof (footprint_gen base pk ops s R hl fl cl IA HP HB ltac:(lia)).
  pose proof (frontier_le_final base ops s R hl fl cl IA HP). lia.
Qed.
