(* C07, forward simulation for HEAP statements on AArch64, part 4: `a_load` (the memory part of Switch and Invoke) under
   `hrel`.  As in Proof/X86HSimLoad.v: the hypotheses of `a64_load_full` (Proof/A64MemLoadChain.v) from the
   representation `xflds` of the loaded object (`lf_share_ok_words`, shared) and the header bounds of the allocator
   invariant (`hdr_bounds_x`, shared); the loaded temporaries hold the field words, so the new environment entries are
   represented (`load_ptrs_words`); `heq_load_object` (shared) for the abstraction afterwards. *)
From Coq Require Import List ZArith NArith String Bool Lia FMapPositive Permutation.
From SCC Require Import Base.Sexp Lang.AxSyn Sem.AxSem Sem.AxHeap Model.ParMoves Model.Backend Model.A64 Sem.A64Sem
     Generated.Constants Proof.A64State Proof.A64ImmHw Proof.A64Imm Proof.A64Sel Proof.A64PM Proof.A64Exec
     Proof.A64MemSubst Proof.SubstGraph Proof.SubstBackends Proof.A64Subst Proof.A64Wf Proof.A64Print
     Proof.A64SimRel Proof.A64SimStmt Proof.HRep Proof.A64Mem Proof.A64MemOps Proof.A64MemLoad Proof.A64MemLoadChain
     Proof.A64HSimRel Proof.A64HSimStmt Proof.A64HConv Proof.A64HSimStore.
From SCC Require Model.Heap Model.X86 Proof.HeapMore Proof.HeapTrace Proof.HeapRep
     Proof.X86Mem Proof.X86MemFrame Proof.X86MemStoreChain Proof.X86MemLoadChain Proof.X86MemLoadFull
     Proof.X86HeapDefs Proof.X86HeapCongr Proof.X86HBridge Proof.X86HFrame Proof.X86HSimLoad Proof.X86HSimHeapC.
Import ListNotations.
Open Scope Z_scope.
Open Scope list_scope.

Notation lf_share_ok := X86MemLoadChain.lf_share_ok.
Notation lf_share_ok_words := X86MemLoadFull.lf_share_ok_words.
Notation lf_addrs_waddrs := X86MemLoadFull.lf_addrs_waddrs.
Notation heq_load_object := X86HeapCongr.heq_load_object.
Notation HB := X86HBridge.HB.
Notation hdr_bounds_x := X86HBridge.hdr_bounds_x.
Notation wblocks_slots := X86HSimLoad.wblocks_slots.
Notation nth_error_Some_lt := X86HSimLoad.nth_error_Some_lt.
Notation Forall2_nth := X86HSimLoad.Forall2_nth.
Notation Forall2_len := X86HSimLoad.Forall2_len.

Lemma a_load_temps cx cE lc cl lc1 : a_load cx cE lc = Ok (cl, lc1) -> cx <> [] ->
  (2 * N.of_nat (List.length cE + List.length cx) < MAXPOS + 1)%N.
Proof.
  intros XL NE. unfold a_load in XL. destruct cx as [|b0 cr]; [congruence|]. set (tl := b0 :: cr) in *.
  destruct (a_fresh Fst cE) as [t|]; cbn [rbind] in XL; [|discriminate].
  assert (G : forall br c l, load_register br tl cE lc = Ok (c, l) -> (2 * N.of_nat (List.length cE + List.length tl) < MAXPOS + 1)%N).
  { intros br c l Hc. unfold load_register in Hc.
    destruct (load_fields (S (List.length tl)) tl cE Last Release false lc) as [[[c1 f1] l1]|] eqn:E1; cbn [rbind] in Hc; [|discriminate].
    destruct (load_fields_unfold (List.length tl) tl cE Last Release false lc c1 f1 l1 ltac:(discriminate) E1)
      as (c0 & fr0 & lc0 & lv & _ & _ & _ & Hlv & _).
    assert (Ltl : (1 <= List.length tl)%nat) by (unfold tl; cbn; lia).
    apply load_values_pos in Hlv.
    - rewrite rev_length, skipn_length, app_length, firstn_length, X86MemStoreChain.rest_len_val in Hlv. clear - Hlv Ltl. lia.
    - intros E. apply (f_equal (@List.length binding)) in E. rewrite rev_length, skipn_length, X86MemStoreChain.rest_len_val in E.
      cbn [bp_n] in E. change (N.to_nat (3 - 0)) with 3%nat in E. cbn [List.length] in E. lia. }
  destruct t as [r|pp].
  - destruct (load_register r tl cE lc) as [[c l]|] eqn:ELR; cbn [rbind] in XL; [|discriminate]. eapply G; eauto.
  - destruct (load_register TEMP tl cE lc) as [[c l]|] eqn:ELR; cbn [rbind] in XL; [|discriminate]. eapply G; eauto.
Qed.

Section HLoad.
Variable im : image.
Variable types : list tydecl.
Variable CLO : Z -> ident -> list clause -> ctx -> Prop.
Local Notation hrel := (hrel types CLO).
Local Notation hvrep := (hvrep types CLO).
Local Notation xrep := (HRep.xrep types CLO jump_length in64).
Local Notation xflds := (HRep.xflds types CLO jump_length in64).

Theorem hsim_load cE cx heE x vq q fs (e1 : env) hs s sp lc cl lc1 pc lk hl fl cl0 :
  hrel cE heE hs s sp ->
  lget s sp (mtpos (2 * N.of_nat (List.length cE))) = Some q ->
  xflds (hword s) fs q -> fs <> [] ->
  map snd e1 = fs -> env_ids e1 = ids cx ->
  Forall2 (fun b f => chi_of f = bchi b /\ ty_of f = bty b) cx fs ->
  NoDup (ids (cE ++ cx)) ->
  InvA X86Sem.HEAP_BASE hs (roots (heE ++ [(x, vq, q)])) hl fl cl0 -> P03 hs ->
  HeapRep.rep_flds lk (Heap.m hs) fs q ->
  Heap.frontier hs <= LIMIT ->
  a_load cx cE lc = Ok (cl, lc1) -> code_at im pc cl -> labels_at_nh im pc cl ->
  exists s', exec_to im pc s (padd pc (List.length cl)) s' /\ hframe_eq s s' sp /\
    hrel (cE ++ cx) (heE ++ attach e1 (load_ptrs hs (List.length fs) q))
         (Heap.load_object (Heap.nlinks (List.length fs)) q hs) s' sp.
Proof.
  intros R LQ XF NE E1S E1F KIN ND IA K03 RF HFr XL CA LA.
  pose proof (hrel_length R) as L0.
  pose proof (Forall2_len _ _ _ KIN) as Lcx.
  set (n := List.length fs) in *. set (k := Heap.nlinks n). set (w := hword s). set (F := Heap.frontier hs).
  assert (Hn : (0 < n)%nat) by (unfold n; destruct fs; [congruence|cbn; lia]).
  destruct (HRep.xflds_cons_inv types CLO jump_length in64 w fs q XF NE) as (Bq & FB & PAD & XS). fold n k in FB, PAD, XS.
  set (A := waddrs k w q) in *.
  assert (LA_ : List.length A = (2 * k + 3)%nat) by apply waddrs_length.
  pose proof (nlinks_bound n Hn) as NB1. pose proof (nlinks_upper n) as NB2. fold k in NB1, NB2.
  assert (NEcx : cx <> []) by (intros ->; cbn in Lcx; lia).
  (* the field slots *)
  assert (FLD : forall i f, nth_error fs i = Some f -> xrep w f (w (nth (List.length A - n + i) A 0)) (w (nth (List.length A - n + i) A 0 + 8))).
  { intros i f Hf. destruct (HRep.xreps_nth types CLO jump_length in64 w fs _ XS i f Hf) as (a & Ha & X).
    rewrite nth_error_skipn_add in Ha. rewrite (nth_error_nth _ _ 0 Ha). exact X. }
  assert (SLOT : forall a, In a A -> w a = 0 \/ is_blk (w a)).
  { intros a Ha. destruct (In_nth A a 0 Ha) as (j & Hj & <-).
    destruct (Nat.lt_ge_cases j (List.length A - n)) as [Lj|Lj]; [left; now apply PAD|].
    destruct (nth_error fs (j - (List.length A - n))) as [f|] eqn:Hf; [|apply nth_error_None in Hf; fold n in Hf; lia].
    pose proof (FLD _ f Hf) as X. replace (List.length A - n + (j - (List.length A - n)))%nat with j in X by lia.
    eapply (HRep.xrep_ptr types CLO jump_length in64); eauto. }
  (* hypotheses of the refinement theorem *)
  assert (OKW : lf_share_ok (S (List.length cx)) w cx X86.Last q).
  { apply lf_share_ok_words; [exact NEcx| | | |]; cbv zeta; rewrite Lcx; fold n k A; auto.
    intros i b Hb KE. destruct (nth_error fs i) as [f|] eqn:Hf; [|apply nth_error_None in Hf; apply nth_error_Some_lt in Hb; fold n in Hf; lia].
    destruct (Forall2_nth _ _ _ _ _ _ KIN Hb Hf) as [Kc _]. pose proof (FLD i f Hf) as X.
    destruct f; cbn in Kc; try congruence. inversion X; subst. congruence. }
  pose proof (hr_heq R) as HQ. fold F in HQ.
  assert (BND : forall y, is_blk y -> 0 <= hword s y <= HB).
  { intros y Hy. destruct (heq_abs_ps F s hs y HQ Hy) as [_ E]. rewrite <- E.
    eapply hdr_bounds_x; [exact IA|apply P03_P3; exact K03|exact HFr| |exact Hy].
    pose proof (roots_length (heE ++ [(x, vq, q)])) as RL. rewrite app_length in RL. cbn [List.length] in RL.
    pose proof (hrel_small types CLO _ _ _ _ _ R). lia. }
  pose proof (a_load_temps cx cE lc cl lc1 XL NEcx) as TMP.
  assert (ROOM : forall y, is_blk y -> min_int + 1 <= hword s y /\ hword s y + Z.of_nat (List.length cx) <= max_int).
  { intros y Hy. specialize (BND y Hy). unfold MAXPOS in TMP. unfold HB, min_int, max_int, two63 in *. lia. }
  assert (LAm : labels_at im pc cl) by (eapply labels_at_a_load; eauto).
  destruct (a64_load_full im pc cx cE lc cl lc1 s sp q (Heap.heap hs) F XL NEcx CA LAm (hr_frame R) LQ Bq (hr_heapreg R) OKW ROOM)
    as (s' & ST & EQ & LD & KEEP & OUT & FR' & NBS & (h' & RH') & RFR & SF).
  rewrite (lf_addrs_waddrs (hword s) cx q NEcx) in LD. rewrite Lcx in LD, EQ. fold n k w A in LD, EQ.
  (* the abstraction afterwards *)
  assert (HQL : heq (Heap.load_object k q (abs_heap F s)) (Heap.load_object k q hs)).
  { apply heq_load_object; [exact HQ|apply P03_P3; exact K03| |].
    - cbn [abs_heap Heap.m]. rewrite obj_blocks_abs. exact FB.
    - cbn [abs_heap Heap.m]. rewrite obj_blocks_abs. intros b Hb. cbn [abs_mem Heap.ps].
      destruct (wblocks_slots w k q b Hb) as (S1 & S2 & S3). fold A in S1, S2, S3.
      repeat (apply Forall_cons); [apply SLOT; exact S1|apply SLOT; exact S2| |apply Forall_nil].
      destruct S3 as [S3|S3]; [apply SLOT; exact S3|right]. rewrite Forall_forall in FB. apply FB. exact S3. }
  set (hs' := Heap.load_object k q hs) in *.
  assert (HQ1 : heq (abs_heap F s') hs') by (eapply heq_eqB; [exact EQ|exact HQL]).
  assert (EF' : Heap.frontier hs' = F) by (destruct HQ1 as (_ & _ & X & _); symmetry; exact X).
  assert (EH : h' = Heap.heap hs').
  { destruct HQ1 as (X & _). cbn [abs_heap Heap.heap] in X. unfold reg_or0 in X. rewrite RH' in X. exact X. }
  assert (EFREE : Heap.free hs' = Heap.free hs).
  { destruct HQ1 as (_ & X & _). cbn [abs_heap Heap.free] in X. unfold reg_or0 in X. rewrite RFR, (hr_freereg R) in X. congruence. }
  assert (EXT : forall a, ~ is_blk a -> hword s' a = hword s a) by exact NBS.
  (* the pointers of the machine are the loaded words *)
  assert (LP : load_ptrs hs n q = map w (skipn (List.length A - n) A)).
  { unfold n, w, A, k. apply (load_ptrs_words F s hs lk fs q HQ K03 NE RF). exact FB. }
  exists s'. split; [|split].
  - exact ST.
  - split; [exact OUT|exact SF].
  - destruct R as [F0 Ro Hr Fr HQ0 Ids NDc Vals]. split; auto.
    + rewrite RH'. now rewrite EH.
    + rewrite RFR, Fr. now rewrite EFREE.
    + rewrite EF'. exact HQ1.
    + unfold env_ids, ids, erase_env in *. rewrite !map_app. f_equal; [exact Ids|].
      fold (erase_env (attach e1 (load_ptrs hs n q))). rewrite attach_erase. exact E1F.
    + intros i y v p Hi. destruct (Nat.lt_ge_cases i (List.length heE)) as [Li|Li].
      * rewrite nth_error_app1 in Hi by exact Li.
        destruct (Vals i y v p Hi) as (b & Hb & V).
        exists b. split; [rewrite nth_error_app1 by lia; exact Hb|].
        eapply (hvrep_keep_rep types CLO); [intros a; apply (HRep.xrep_ext types CLO jump_length in64); exact EXT| |exact V].
        intros m t _ T. apply atpos_mtpos in T as [-> _]. apply KEEP. destruct m; cbn [tnum_n]; lia.
      * rewrite nth_error_app2 in Hi by exact Li. set (j := (i - List.length heE)%nat) in *.
        destruct (attach_nth _ _ _ _ _ _ Hi) as [He1 Ep].
        assert (Hf : nth_error fs j = Some v).
        { rewrite <- E1S. rewrite nth_error_map, He1. reflexivity. }
        assert (Lj : (j < n)%nat) by (apply nth_error_Some_lt in Hf; exact Hf).
        destruct (nth_error cx j) as [b|] eqn:Hb; [|apply nth_error_None in Hb; lia].
        exists b. split; [rewrite nth_error_app2 by lia; replace (i - List.length cE)%nat with j by lia; exact Hb|].
        destruct (Forall2_nth _ _ _ _ _ _ KIN Hb Hf) as [Kc Kt].
        destruct (LD j b Hb) as [LS LF]. cbv zeta in LS, LF.
        replace (List.length cE + j)%nat with i in LS, LF by lia.
        set (a := nth (List.length A - n + j) A 0) in *.
        pose proof (FLD j v Hf) as X. fold a in X.
        assert (Ep' : p = w a).
        { rewrite Ep, LP. rewrite (nth_indep _ 0 (w 0)) by (rewrite map_length, skipn_length; lia).
          rewrite map_nth. f_equal. unfold a.
          assert (Hs : nth_error (skipn (List.length A - n) A) j = nth_error A (List.length A - n + j)) by apply nth_error_skipn_add.
          destruct (nth_error A (List.length A - n + j)) as [a0|] eqn:Ha; [|apply nth_error_None in Ha; lia].
          rewrite (nth_error_nth _ _ 0 Hs), (nth_error_nth _ _ 0 Ha). reflexivity. }
        assert (K1 : (2 * N.of_nat i + 1 < MAXPOS)%N) by (rewrite Lcx in TMP; unfold MAXPOS in *; lia).
        assert (K0 : (2 * N.of_nat i + 0 < MAXPOS)%N) by lia.
        assert (PT : bchi b <> Ext -> hvrep s' sp i b v p).
        { intros NX. rewrite Ep'. eapply (hv_ptr types CLO s' sp i b v (w a) (w (a + 8))); try assumption.
          - apply (mtpos_atpos Fst i). exact K0.
          - apply (mtpos_atpos Snd i). exact K1.
          - cbn [tnum_n]. rewrite N.add_0_r. apply LF. exact NX.
          - exact LS.
          - eapply (HRep.xrep_ext types CLO jump_length in64); [exact EXT|exact X]. }
        destruct (bchi b) eqn:Kb; [apply PT; discriminate|apply PT; discriminate|].
        destruct v as [z| |]; cbn in Kc, Kt; try congruence. inversion X; subst.
        eapply hv_int; [exact Kb|congruence|apply (mtpos_atpos Snd i); exact K1| |assumption].
        cbn [tnum_n]. rewrite LS. congruence.
Qed.

(* the same for any number of fields, none included (then there is no code) *)
Theorem hsim_load_any cE cx heE x vq q fs (e1 : env) hs s sp lc cl lc1 pc lk hl fl cl0 :
  hrel cE heE hs s sp ->
  lget s sp (mtpos (2 * N.of_nat (List.length cE))) = Some q ->
  xflds (hword s) fs q ->
  map snd e1 = fs -> env_ids e1 = ids cx ->
  Forall2 (fun b f => chi_of f = bchi b /\ ty_of f = bty b) cx fs ->
  NoDup (ids (cE ++ cx)) ->
  InvA X86Sem.HEAP_BASE hs (roots (heE ++ [(x, vq, q)])) hl fl cl0 -> P03 hs ->
  (fs <> [] -> HeapRep.rep_flds lk (Heap.m hs) fs q) ->
  Heap.frontier hs <= LIMIT ->
  a_load cx cE lc = Ok (cl, lc1) -> code_at im pc cl -> labels_at_nh im pc cl ->
  exists s', exec_to im pc s (padd pc (List.length cl)) s' /\ hframe_eq s s' sp /\
    hrel (cE ++ cx) (heE ++ attach e1 (load_ptrs hs (List.length cx) q)) (hrun (load_ops (List.length cx) q) hs) s' sp.
Proof.
  intros R LQ XF E1S E1F KIN ND IA K03 RF HFr LD CA LA. pose proof (Forall2_len _ _ _ KIN) as Lcx.
  destruct fs as [|f0 fr].
  - destruct cx; [|discriminate]. destruct e1; [|discriminate].
    cbn [a_load] in LD. inversion LD; subst cl lc1.
    exists s. split; [apply exec_refl|]. split; [apply hframe_eq_refl|].
    cbn [List.length load_ops hrun fold_left attach]. rewrite !app_nil_r. exact R.
  - destruct (hsim_load cE cx heE x vq q (f0 :: fr) e1 hs s sp lc cl lc1 pc lk hl fl cl0
                R LQ XF ltac:(discriminate) E1S E1F KIN ND IA K03 (RF ltac:(discriminate)) HFr LD CA LA) as (s' & XL & FEL & RL).
    exists s'. split; [exact XL|]. split; [exact FEL|]. rewrite Lcx, X86HSimHeapC.load_ops_run by (cbn; lia). exact RL.
Qed.
End HLoad.
