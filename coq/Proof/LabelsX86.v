(* C14: the x86-64 back end obeys the label discipline of Proof/LabelGen.v ([x86_labels_ok]), hence
   the label theorems for x86_compile: [x86_labels_unique], [x86_refs_defined]. *)
From Coq Require Import List ZArith NArith String Ascii Bool Lia Permutation.
From SCC Require Import Base.Sexp Lang.AxSyn Model.ParMoves Model.Backend Model.X86 Sem.X86Wf
  Proof.LabelStrings Proof.LabelGen.
Import ListNotations.
Local Open Scope string_scope.
Local Open Scope list_scope.

Definition xdefs (c : xcode) : list string := match c with LAB l => [l] | _ => [] end.
Notation xrefs := referenced.
Definition nolab (c : xcode) : bool :=
  match c with
  | LAB _ | JMPL _ | JMPLN _ | LEAL _ _ | JEL _ | JNEL _ | JLL _ | JLEL _ | JGL _ | JGEL _ => false
  | _ => true
  end.
Notation defs := (defs xdefs).
Notation refs := (refs xrefs).
Notation plain := (plain xdefs xrefs).
Notation labs_ok := (labs_ok xdefs xrefs).

Lemma nolab_sound i : nolab i = true -> xdefs i = [] /\ xrefs i = [].
Proof. destruct i; try discriminate; split; reflexivity. Qed.
(* the lemmas of LabelGen.NoLab for this instruction set *)
Notation nolab_plain := (nolab_plain xdefs xrefs nolab nolab_sound).
Notation nolab_labs := (nolab_labs xdefs xrefs nolab nolab_sound).
Notation labs_pre := (labs_pre xdefs xrefs nolab nolab_sound).
Notation labs_post := (labs_post xdefs xrefs nolab nolab_sound).
Notation only_1 := (only_1 xdefs xrefs).
Notation only_pre := (only_pre xdefs xrefs nolab nolab_sound).
Notation only_post := (only_post xdefs xrefs nolab nolab_sound).

Ltac nl :=
  repeat first
    [ reflexivity
    | rewrite forallb_app
    | apply andb_true_intro; split
    | apply forallb_map_all; intros; reflexivity
    | match goal with |- context [match ?t with XR _ => _ | XS _ => _ end] => destruct t end
    | match goal with |- context [if ?b then _ else _] => destruct b end
    | progress cbn [forallb nolab app] ].

Lemma nl_move_to r t : forallb nolab (move_to_register r t) = true. Proof. unfold move_to_register. nl. Qed.
Lemma nl_move_from t r : forallb nolab (move_from_register t r) = true. Proof. unfold move_from_register. nl. Qed.
Lemma nl_arith o t a b : forallb nolab (x_arith o t a b) = true.
Proof.
  destruct o; cbn [x_arith]; unfold x_div, x_rem, op_commutative, sub, div_core, add_to_register, add_to_spill,
    mul_to_register, mul_to_spill, sub_to_register, sub_to_spill, move_to_register, move_from_register; nl.
Qed.
Lemma nl_mov t s : forallb nolab (x_mov t s) = true.
Proof. unfold x_mov, move_to_register, move_from_register. nl. Qed.
Lemma nl_jump t : forallb nolab (x_jump t) = true. Proof. unfold x_jump. nl. Qed.
Lemma nl_load_immediate t i : forallb nolab (x_load_immediate t i) = true. Proof. unfold x_load_immediate. nl. Qed.
Lemma nl_add_and_jump t i : forallb nolab (x_add_and_jump t i) = true. Proof. unfold x_add_and_jump. nl. Qed.
Lemma nl_compare a b : forallb nolab (compare a b) = true. Proof. unfold compare. nl. Qed.
Lemma nl_compare_immediate a i : forallb nolab (compare_immediate a i) = true. Proof. unfold compare_immediate. nl. Qed.
Lemma nl_print nl_ t c : forallb nolab (x_print nl_ t c) = true.
Proof.
  unfold x_print. destruct (caller_save_registers_info c) as [fb regs].
  unfold save_caller_save_registers, restore_caller_save_registers, move_to_register. nl.
Qed.
Lemma nl_store_temporary t f : forallb nolab (x_store_temporary t f) = true. Proof. unfold x_store_temporary. nl. Qed.
Lemma nl_restore_temporary t f : forallb nolab (x_restore_temporary t f) = true. Proof. unfold x_restore_temporary. nl. Qed.

(* memory.rs: the label counter *)
Definition okp (lc : N) (p : list xcode * N) : Prop := labs_ok lc (fst p) (snd p).
Definition okr (lc : N) (r : res (list xcode * N)) : Prop := forall c lc', r = Ok (c, lc') -> labs_ok lc c lc'.
Lemma lab_eq n : lab n = pr (GLab n).
Proof. reflexivity. Qed.

Ltac dr := unfold LabelGen.defs, LabelGen.refs; rewrite ?flat_map_app; cbn [flat_map xdefs referenced app].

Lemma sk_ok a cond body lc : labs_ok a body lc -> okp a (skip_if_zero cond body lc).
Proof.
  intros H. unfold okp, skip_if_zero. cbn [fst snd]. destruct (nolab_plain _ (nl_compare_immediate cond 0)) as [D R].
  apply (labs_skip _ _ a lc body); [exact H| |].
  - rewrite !(defs_app xdefs), D. dr. rewrite ?app_nil_r. reflexivity.
  - rewrite !(refs_app xrefs), R. dr. rewrite ?app_nil_r. apply incl_refl.
Qed.
Lemma ite_ok a b c cond off th el : labs_ok a th b -> labs_ok b el c -> okp a (if_zero_then_else cond off th el c).
Proof.
  intros H1 H2. unfold okp, if_zero_then_else. cbn [fst snd].
  apply (labs_ite _ _ a b c th el); [exact H1|exact H2| |].
  - rewrite !(defs_app xdefs). destruct off; dr; rewrite ?app_nil_r; reflexivity.
  - rewrite !(refs_app xrefs). destruct off; dr; rewrite ?app_nil_r; cbn [app]; apply incl_refl.
Qed.

Lemma erase_valid_ok r lc : okp lc (erase_valid_object r lc).
Proof. unfold erase_valid_object. apply (ite_ok lc lc lc); apply nolab_labs; reflexivity. Qed.
Lemma erase_ok t lc : okp lc (x_erase_block t lc).
Proof.
  destruct t as [r|p]; cbn [x_erase_block].
  - pose proof (erase_valid_ok r lc) as H. destruct (erase_valid_object r lc) as [c lc1]. apply sk_ok. exact H.
  - pose proof (erase_valid_ok TEMP lc) as H. destruct (erase_valid_object TEMP lc) as [c lc1].
    pose proof (sk_ok lc (XR TEMP) c lc1 H) as H2. destruct (skip_if_zero (XR TEMP) c lc1) as [c2 lc2].
    unfold okp in *. cbn [fst snd] in *. apply labs_pre; [reflexivity|exact H2].
Qed.
Lemma share_ok t n lc : okp lc (x_share_block_n t n lc).
Proof. destruct t as [r|p]; cbn [x_share_block_n]; apply sk_ok; apply nolab_labs; reflexivity. Qed.

Lemma erase_fields_ok r a : forall l acc, okp a acc ->
  okp a (fold_left (fun (acc : list xcode * N) (offset : N) =>
               let '(c, lc) := acc in
               let '(c1, lc1) := x_erase_block (XR TEMP) lc in
               (c ++ [MOVL TEMP r (field_offset Fst offset)] ++ c1, lc1)) l acc).
Proof.
  induction l as [|o l IH]; intros [c lc] H; cbn [fold_left]; [exact H|]. apply IH.
  pose proof (erase_ok (XR TEMP) lc) as H2. destruct (x_erase_block (XR TEMP) lc) as [c1 lc1]. unfold okp in *. cbn [fst snd] in *.
  apply (labs_app _ _ a lc lc1); [exact H|]. apply (labs_pre lc lc1 [_]); [reflexivity|exact H2].
Qed.
Lemma acquire_ok t lc : okp lc (acquire_block t lc).
Proof.
  unfold acquire_block. pose proof (erase_fields_ok HEAP lc (nseq 0 FIELDS_PER_BLOCK) ([], lc)) as H1.
  fold (erase_fields HEAP lc) in H1. destruct (erase_fields HEAP lc) as [ef lc1].
  assert (H1' : okp lc (ef, lc1)) by (apply H1; apply nolab_labs; reflexivity). clear H1. unfold okp in H1'. cbn [fst snd] in H1'.
  assert (L1 : (lc <= lc1)%N) by apply H1'.
  pose proof (ite_ok lc lc lc1 FREE None [MOV FREE HEAP; ADDI FREE (field_offset Fst FIELDS_PER_BLOCK)]
                ([MOVIM HEAP NEXT_ELEMENT_OFFSET 0] ++ ef)) as H2.
  destruct (if_zero_then_else FREE None _ _ lc1) as [inner lc2].
  assert (H2' : okp lc (inner, lc2)) by (apply H2; [apply nolab_labs; reflexivity|apply (labs_pre lc lc1 [_]); [reflexivity|exact H1']]).
  clear H2. unfold okp in H2'. cbn [fst snd] in H2'.
  match goal with |- context [if_zero_then_else HEAP None ?th ?el lc2] =>
    pose proof (ite_ok lc lc2 lc2 HEAP None th el) as H3; destruct (if_zero_then_else HEAP None th el lc2) as [outer lc3] end.
  assert (H3' : okp lc (outer, lc3)).
  { apply H3; [apply (labs_pre lc lc2 [_; _]); [reflexivity|exact H2']|apply nolab_labs; destruct t; reflexivity]. }
  unfold okp in *. cbn [fst snd] in *. apply labs_pre; [destruct t; reflexivity|exact H3'].
Qed.

Lemma nl_store_field n c b o code : store_field n c b o = Ok code -> forallb nolab code = true.
Proof. unfold store_field. intros H. rinv H. inversion H; subst. destruct x; reflexivity. Qed.
Lemma nl_load_field n c b o code : load_field n c b o = Ok code -> forallb nolab code = true.
Proof. unfold load_field. intros H. rinv H. inversion H; subst. destruct x; reflexivity. Qed.
Lemma nl_store_value b rem blk o code : store_value b rem blk o = Ok code -> forallb nolab code = true.
Proof.
  unfold store_value. intros H. rinv H. pose proof (nl_store_field _ _ _ _ _ E) as N1. destruct (bchi b).
  - rinv H. inversion H; subst. rewrite forallb_app, N1, (nl_store_field _ _ _ _ _ E0). reflexivity.
  - rinv H. inversion H; subst. rewrite forallb_app, N1, (nl_store_field _ _ _ _ _ E0). reflexivity.
  - inversion H; subst. rewrite forallb_app, N1. reflexivity.
Qed.
Lemma nl_store_zeros n b : forallb nolab (store_zeros n b) = true.
Proof. unfold store_zeros. induction (nseq 0 n); cbn; [reflexivity|exact IHl]. Qed.
Lemma nl_store_values rem blk : forall l ff code, store_values l rem blk ff = Ok code -> forallb nolab code = true.
Proof.
  induction l as [|b l IH]; intros ff code H; cbn [store_values] in H.
  - inversion H; subst. apply nl_store_zeros.
  - rinv H. inversion H; subst. rewrite forallb_app, (nl_store_value _ _ _ _ _ E), (IH _ _ E0). reflexivity.
Qed.

Lemma load_value_ok b ex blk o m lc : okr lc (load_value b ex blk o m lc).
Proof.
  unfold okr, load_value. intros c lc' H. rinv H. pose proof (nl_load_field _ _ _ _ _ E) as N1.
  destruct (bchi b).
  1,2: rinv H; pose proof (nl_load_field _ _ _ _ _ E0) as N2; destruct m.
  - inversion H; subst. apply nolab_labs. rewrite forallb_app, N1, N2. reflexivity.
  - match type of H with context [x_share_block_n ?t ?n ?l] =>
      pose proof (share_ok t n l) as S; destruct (x_share_block_n t n l) as [c3 lc1] end.
    inversion H; subst. unfold okp in S. cbn [fst snd] in S. apply labs_pre; [exact N1|]. apply labs_pre; [exact N2|exact S].
  - inversion H; subst. apply nolab_labs. rewrite forallb_app, N1, N2. reflexivity.
  - match type of H with context [x_share_block_n ?t ?n ?l] =>
      pose proof (share_ok t n l) as S; destruct (x_share_block_n t n l) as [c3 lc1] end.
    inversion H; subst. unfold okp in S. cbn [fst snd] in S. apply labs_pre; [exact N1|]. apply labs_pre; [exact N2|exact S].
  - inversion H; subst. apply nolab_labs. exact N1.
Qed.
Lemma load_values_ok ex blk m : forall l ff lc, okr lc (load_values l ex blk ff m lc).
Proof.
  induction l as [|b l IH]; intros ff lc c lc' H; cbn [load_values] in H.
  - inversion H; subst. apply nolab_labs. reflexivity.
  - rinv H. inversion H; subst. apply (labs_app _ _ lc n lc'); [apply (load_value_ok _ _ _ _ _ _ _ _ E)|apply (IH _ _ _ _ E0)].
Qed.

Lemma store_fields_ok : forall fuel to_store remaining bp lc, okr lc (store_fields fuel to_store remaining bp lc).
Proof.
  induction fuel as [|fuel IH]; intros to_store remaining bp lc c lc' H; cbn [store_fields] in H; [discriminate|].
  destruct to_store as [|b0 ts].
  - destruct bp; [rinv H|]; inversion H; subst; apply nolab_labs; [apply nl_load_immediate|reflexivity].
  - rinv H. pose proof (acquire_ok x1 lc) as A. destruct (acquire_block x1 lc) as [c2 lc2]. rinv H. inversion H; subst.
    unfold okp in A. cbn [fst snd] in A.
    assert (N0 : forallb nolab x = true) by (destruct bp; [inversion E; reflexivity|apply (nl_store_field _ _ _ _ _ E)]).
    apply labs_pre; [exact N0|]. apply labs_pre; [apply (nl_store_values _ _ _ _ _ E0)|].
    apply (labs_app _ _ lc lc2 lc'); [exact A|apply (IH _ _ _ _ _ _ E2)].
Qed.

Lemma load_fields_ok : forall fuel to_load existing bp m freed lc c freed' lc',
  load_fields fuel to_load existing bp m freed lc = Ok (c, freed', lc') -> labs_ok lc c lc'.
Proof.
  induction fuel as [|fuel IH]; intros to_load existing bp m freed lc c freed' lc' H; cbn [load_fields] in H; [discriminate|].
  destruct to_load as [|b0 tl].
  - inversion H; subst. apply nolab_labs. reflexivity.
  - rstep H. destruct x as [[c0 freed0] lc0]. rinv H. pose proof (IH _ _ _ _ _ _ _ _ _ E) as I0.
    assert (NR : forall r, forallb nolab (match m with Release => release_block r | Share => [] end) = true) by (intros r; destruct m; reflexivity).
    destruct x as [mr|mp]; rinv H; inversion H; subst.
    + assert (N2 : forallb nolab x = true) by (destruct bp; [inversion E1; reflexivity|apply (nl_load_field _ _ _ _ _ E1)]).
      apply (labs_app _ _ lc lc0 lc'); [exact I0|]. apply labs_pre; [apply NR|]. apply labs_pre; [exact N2|].
      apply (load_values_ok _ _ _ _ _ _ _ _ E2).
    + assert (N2 : forallb nolab x = true) by (destruct bp; [inversion E1; reflexivity|apply (nl_load_field _ _ _ _ _ E1)]).
      apply (labs_app _ _ lc lc0 lc'); [exact I0|]. apply labs_pre; [destruct freed0; reflexivity|]. apply (labs_pre _ _ [_]); [reflexivity|].
      apply labs_pre; [apply NR|]. apply labs_pre; [exact N2|]. apply labs_post; [destruct bp; reflexivity|].
      apply (load_values_ok _ _ _ _ _ _ _ _ E2).
Qed.

Lemma load_register_ok blk to_load existing lc : okr lc (load_register blk to_load existing lc).
Proof.
  unfold okr, load_register. intros c lc' H. rstep H. destruct x as [[th f1] lc1]. rstep H. destruct x as [[eb f2] lc2].
  pose proof (load_fields_ok _ _ _ _ _ _ _ _ _ _ E) as I1. pose proof (load_fields_ok _ _ _ _ _ _ _ _ _ _ E0) as I2.
  match type of H with Ok ?p = _ => assert (K : okp lc p) end.
  { apply (ite_ok lc lc1 lc2); [exact I1|apply (labs_pre _ _ [_]); [reflexivity|exact I2]]. }
  match type of H with Ok ?p = _ => remember p as q eqn:Q; clear Q end. destruct q as [cc ll]. inversion H; subst. exact K.
Qed.
Lemma load_ok to_load existing lc : okr lc (x_load to_load existing lc).
Proof.
  unfold okr, x_load. intros c lc' H. destruct to_load as [|b0 tl].
  - inversion H; subst. apply nolab_labs. reflexivity.
  - rinv H. destruct x as [r|p].
    + apply (load_register_ok _ _ _ _ _ _ H).
    + rinv H. destruct x as [c1 l1]. cbn [fst snd] in H. inversion H; subst. apply (labs_pre _ _ [_]); [reflexivity|].
      apply (load_register_ok _ _ _ _ _ _ E0).
Qed.
Lemma store_ok to_store remaining lc : okr lc (x_store to_store remaining lc).
Proof. unfold x_store. apply store_fields_ok. Qed.

Theorem x86_labels_ok : labels_ok x86_backend xdefs xrefs.
Proof.
  constructor; cbn [x86_backend x86_backend_with b_label b_mark b_jump b_jump_label b_jump_label_fixed b_jcc2 b_jcc1
    b_load_immediate b_load_label b_add_and_jump b_arith b_mov b_print b_erase b_share_n b_store b_load
    b_store_temporary b_restore_temporary].
  - intros l. split; reflexivity.
  - intros c. split; reflexivity.
  - intros t. apply nolab_plain, nl_jump.
  - intros l. apply only_1; [reflexivity|apply incl_refl].
  - intros l. apply only_1; [reflexivity|apply incl_refl].
  - intros s a b l. apply only_pre; [apply nl_compare|]. apply only_1; destruct s; first [reflexivity|apply incl_refl].
  - intros s a l. apply only_pre; [apply nl_compare_immediate|]. apply only_1; destruct s; first [reflexivity|apply incl_refl].
  - intros t i. apply nolab_plain, nl_load_immediate.
  - intros t l. destruct t; cbn [x_load_label].
    + apply only_1; [reflexivity|apply incl_refl].
    + apply (only_post [_] [_]); [reflexivity|]. apply only_1; [reflexivity|apply incl_refl].
  - intros t i. apply nolab_plain, nl_add_and_jump.
  - intros o t a b. apply nolab_plain, nl_arith.
  - intros t s. apply nolab_plain, nl_mov.
  - intros n t c. apply nolab_plain, nl_print.
  - intros t f. apply nolab_plain, nl_store_temporary.
  - intros t f. apply nolab_plain, nl_restore_temporary.
  - intros t lc. apply erase_ok.
  - intros t n lc. apply share_ok.
  - intros a b lc c lc'. apply store_ok.
  - intros a b lc c lc'. apply load_ok.
Qed.
