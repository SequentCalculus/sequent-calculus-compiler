(* C14: the jump-table stride of the AArch64 and RISC-V back ends.  A table is a run of fixed-size
   jumps (`B l` / `JAL X0 l`, the instruction b_jump_label_fixed emits); in the code image of the ISA
   models its k-th entry lies exactly jump_length k bytes after the first one, jump_length being the
   function the tag arithmetic of Let / Invoke uses (and the crate's: A64Sel.a64_jump_length_samples,
   RVSel.rv_jump_length_samples).  The three ingredients are separate lemmas, per ISA (modules A and R, over
   Sem/A64Sem.build and Sem/RVSem.build): the table is such a run ([table_is_fixed_jumps]), the k-th address of a
   run ([addrs_table]), the image records these addresses ([build_addr_of]); they are not composed here.
   Also: what the immediate classes of Sem/A64Wf.v mean. *)
From Coq Require Import List ZArith NArith String Bool Lia FMapPositive.
From SCC Require Import Base.Sexp Lang.AxSyn Model.Backend.
From SCC Require Model.A64 Model.RV Sem.A64Sem Sem.RVSem Sem.A64Wf.
Import ListNotations.
Open Scope Z_scope.

Module A.
Import Model.A64 Sem.A64Sem.
Fixpoint addrs (cs : list acode) (a : Z) : list Z :=
  match cs with [] => [] | c :: r => a :: addrs r (a + isize c) end.
Lemma addrs_table (ls : list string) (a : Z) (k : nat) :
  (k < List.length ls)%nat ->
  nth k (addrs (map B ls) a) 0 = a + jump_length (N.of_nat k).
Proof.
  revert a k; induction ls as [|l ls IH]; intros a k Hk; cbn [List.length] in Hk; [lia|].
  destruct k as [|k]; cbn [map addrs nth].
  - unfold jump_length; cbn; lia.
  - rewrite IH by lia. unfold jump_length. cbn [isize]. lia.
Qed.
Lemma table_is_fixed_jumps (cls : list clause) base :
  code_table a64_backend cls base = map B (map (fun c => (base +++ "_" +++ show_ident (cl_xtor c))%string) cls).
Proof. unfold code_table. induction cls as [|c r IH]; [reflexivity|]. cbn [flat_map map]. rewrite IH. reflexivity. Qed.
Lemma build_addr_of cs : forall i a im,
  (forall j, (i <= j)%positive -> PM.find j (addr_of im) = None) ->
  forall k, (k < List.length cs)%nat ->
    PM.find (Pos.of_nat (Pos.to_nat i + k)) (addr_of (build cs i a im)) = Some (nth k (addrs cs a) 0).
Proof.
  induction cs as [|c cs IH]; intros i a im Hfresh k Hk; cbn [List.length] in Hk; [lia|].
  cbn [build addrs].
  set (im' := {| code := _; addr_of := PM.add i a (addr_of im); index_at := _; labels := _; len := i |}).
  destruct k as [|k].
  - rewrite Nat.add_0_r, Pos2Nat.id. cbn [nth].
    assert (G : forall cs' j b im0, (i < j)%positive -> PM.find i (addr_of (build cs' j b im0)) = PM.find i (addr_of im0)).
    { induction cs' as [|c' cs' IH']; intros j b im0 Hj; cbn [build]; [reflexivity|].
      rewrite IH' by lia. cbn [addr_of]. apply PM.gso. lia. }
    rewrite G by lia. subst im'; cbn [addr_of]. apply PM.gss.
  - replace (Pos.of_nat (Pos.to_nat i + S k)) with (Pos.of_nat (Pos.to_nat (Pos.succ i) + k)) by (f_equal; lia).
    cbn [nth]. apply IH; [|lia].
    intros j Hj. subst im'; cbn [addr_of]. rewrite PM.gso by lia. apply Hfresh. lia.
Qed.
(* the immediate classes of Sem/A64Wf.v, as ranges *)
Lemma imm12_spec i : A64Wf.imm12 i = true <-> (0 <= i <= 4095 \/ exists h, 0 <= h <= 4095 /\ i = 4096 * h).
Proof.
  unfold A64Wf.imm12. rewrite orb_true_iff, !andb_true_iff, !Z.leb_le, Z.eqb_eq. split.
  - intros [[H1 H2]|[[H1 H2] H3]]; [left; lia|]. right. exists (i / 4096). split; [split; [apply Z.div_pos; lia|exact H3]|].
    apply Z.div_exact in H2; lia.
  - intros [H|(h & H & ->)]; [left; lia|]. right. rewrite Z.mul_comm, Z.mod_mul, Z.div_mul by lia. lia.
Qed.
Lemma uoff8_spec i : A64Wf.uoff8 i = true <-> exists q, 0 <= q <= 4095 /\ i = 8 * q.
Proof.
  unfold A64Wf.uoff8. rewrite !andb_true_iff, !Z.leb_le, Z.eqb_eq. split.
  - intros [[H1 H2] H3]. exists (i / 8). apply Z.div_exact in H3; [|lia]. split; [|exact H3].
    split; [apply Z.div_pos; lia|]. apply Z.div_le_upper_bound; lia.
  - intros (q & H & ->). rewrite Z.mul_comm, Z.mod_mul by lia. lia.
Qed.
End A.

Module R.
Import Model.RV Sem.RVSem.
Fixpoint addrs (cs : list rcode) (a : Z) : list Z :=
  match cs with [] => [] | c :: r => a :: addrs r (a + isize c) end.
Lemma addrs_table (ls : list string) (a : Z) (k : nat) :
  (k < List.length ls)%nat ->
  nth k (addrs (map (JAL ZERO) ls) a) 0 = a + jump_length (N.of_nat k).
Proof.
  revert a k; induction ls as [|l ls IH]; intros a k Hk; cbn [List.length] in Hk; [lia|].
  destruct k as [|k]; cbn [map addrs nth].
  - unfold jump_length; cbn; lia.
  - rewrite IH by lia. unfold jump_length. cbn [isize]. lia.
Qed.
Lemma table_is_fixed_jumps (cls : list clause) base :
  code_table rv_backend cls base = map (JAL ZERO) (map (fun c => (base +++ "_" +++ show_ident (cl_xtor c))%string) cls).
Proof. unfold code_table. induction cls as [|c r IH]; [reflexivity|]. cbn [flat_map map]. rewrite IH. reflexivity. Qed.
Lemma build_addr_of cs : forall i a im,
  (forall j, (i <= j)%positive -> PM.find j (addr_of im) = None) ->
  forall k, (k < List.length cs)%nat ->
    PM.find (Pos.of_nat (Pos.to_nat i + k)) (addr_of (build cs i a im)) = Some (nth k (addrs cs a) 0).
Proof.
  induction cs as [|c cs IH]; intros i a im Hfresh k Hk; cbn [List.length] in Hk; [lia|].
  cbn [build addrs].
  set (im' := {| code := _; addr_of := PM.add i a (addr_of im); index_at := _; labels := _; len := i |}).
  destruct k as [|k].
  - rewrite Nat.add_0_r, Pos2Nat.id. cbn [nth].
    assert (G : forall cs' j b im0, (i < j)%positive -> PM.find i (addr_of (build cs' j b im0)) = PM.find i (addr_of im0)).
    { induction cs' as [|c' cs' IH']; intros j b im0 Hj; cbn [build]; [reflexivity|].
      rewrite IH' by lia. cbn [addr_of]. apply PM.gso. lia. }
    rewrite G by lia. subst im'; cbn [addr_of]. apply PM.gss.
  - replace (Pos.of_nat (Pos.to_nat i + S k)) with (Pos.of_nat (Pos.to_nat (Pos.succ i) + k)) by (f_equal; lia).
    cbn [nth]. apply IH; [|lia].
    intros j Hj. subst im'; cbn [addr_of]. rewrite PM.gso by lia. apply Hfresh. lia.
Qed.
End R.
