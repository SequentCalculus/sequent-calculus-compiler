(* Proof/Fun2CoreTyTerm  -  the remaining term forms (destructor, case, new, label, goto, exit)
   and the induction:  [tw_all : forall t, TW t /\ TC t]. *)
From Coq Require Import List ZArith NArith String Bool Lia.
From SCC Require Import Proof.CoreInd.
From SCC Require Import Base.Sexp Lang.SynUtil Lang.FunSyn Lang.FunTy Lang.CoreSyn.
From SCC Require Import Sem.AxSem Sem.FunSem Sem.FsCheck Sem.CoreCheck Model.Fun2Core Model.Fun2CoreGuard Model.Fun2CoreTyGuard.
From SCC Require Import Proof.Fun2CoreProof Proof.Fun2CoreTfv Proof.Fun2CoreInv Proof.CoreTyRules Proof.CoreTyFv
     Proof.Fun2CoreTyBase Proof.Fun2CoreTyShare Proof.Fun2CoreTyMain.
Import ListNotations.
Open Scope string_scope.
Open Scope list_scope.

Arguments var_ok : simpl never.

Section Term.
  Variable p : fcprog.
  Variable defs : list cdef.
  Variable cur : string.
  Variable U : list string.
  Notation D := (cdata_of p).
  Notation C := (ccodata_of p).
  Notation cd := (f_is_codata p).
  Notation wc' := (wc C cur false).
  Notation cmp' := (cmp C cur false).
  Notation ct := (ccheck_term D C defs).
  Notation cs := (ccheck_stmt D C defs).
  Notation tg := (tg p D C).
  Notation tg_args := (tg_args p D C).
  Notation tg_clauses := (tg_clauses p D C).
  Notation tg_coclauses := (tg_coclauses p D C).
  Notation tyd := (tyd D C).
  Notation ann_ok := (ann_ok D C).
  Notation KT := (KT D C defs U).
  Notation agree := (agree U).
  Notation gen := (gen U).
  Notation tyd_fv := (tyd_fv D C).
  Notation def_typed := (def_typed D C defs).
  Notation Hfind := (Hfind defs).
  Notation args_typed := (args_typed D C defs).
  Notation clause_typed := (clause_typed D C defs).
  Notation TW := (TW p defs cur U).
  Notation TC := (TC p defs cur U).
  Notation lifted_ok := (lifted_ok p defs).

  Hypothesis Hcallee : forall f d, ffind_def p f = Some d -> (f <> "main" \/ calls_main_prog p = true) ->
    exists a body, find (fun d' => cident_eqb (cdname d') (new_id f)) defs =
                   Some (mkcd (new_id f) (compile_ctx (fdctx d) ++ [mkcb (new_id a) CCns (compile_ty (fdret d))]) body).

  Lemma tw_dtor : forall scrut x targs args ty, TW scrut -> Forall TC args -> TW (FDtor scrut x targs args ty).
  Proof.
    intros scrut x targs args ty Hsc Ha G S cont t st s st' H Hg Hty Htd Hfv Hbd HS HU HK Hf. rewrite wc_unfold in H.
    apply wc_dtor_inv in H. destruct H as [args' [st1 [sty0 [Es [Esty Ew]]]]].
    rewrite tg_dtor in Hg. apply andb_prop in Hg. destruct Hg as [Hgs Hg].
    assert (Etyo : tyo scrut = Some (compile_ty sty0)) by (unfold tyo; rewrite Esty; reflexivity).
    rewrite Etyo in Hg. destruct (compile_ty sty0) as [|n] eqn:En; [discriminate|].
    destruct (find_decl C n) as [d|] eqn:Ed; [|discriminate]. destruct (find_cxtor d (new_id x)) as [sg|] eqn:Esg; [|discriminate].
    destruct (split_last (cxargs sg)) as [[pre last]|] eqn:Esl; [|discriminate]. apply split_last_spec in Esl.
    apply andb_prop in Hg as [[Hga Hchi]%andb_prop Hhas]. apply ceq_chi in Hchi.
    apply has_ty_tyo in Hhas. rewrite Hty in Hhas. injection Hhas as ->.
    rewrite fv_dtor in Hfv. simpl in Hbd.
    assert (Ga : grows st st1) by (eapply subst_with_grows; exact Es).
    assert (Gs : grows st1 st') by (eapply wc_grows; exact Ew).
    set (S' := flat_map fv_fterm args ++ S) in *.
    assert (Hargs : forall G', same_on (flat_map fv_fterm args) G' G ->
              args_typed G' args' pre /\ tyd_fv (fva args') /\ lifted_ok st st1).
    { intros G' Hso. apply (tw_args p defs cur U args Ha G' pre st args' st1 Es); auto.
      - rewrite <- Hga. apply ge_args; [apply Forall_forall; intros y _; apply tg_ext | exact Hso].
      - exact (incl_app_r _ _ _ _ Hfv).
      - exact (incl_app_r _ _ _ _ Hbd).
      - eapply Hfind_grows; eassumption. }
    destruct (Hsc G S' (CXtor CCns (new_id x) (args' ++ [CConsumer cont]) (CDecl n)) (CDecl n) st1 s st' Ew Hgs Etyo) as [W1 W2]; auto.
    { eapply find_codata_tyd; exact Ed. }
    { eapply incl_tran; [exact (incl_app_l _ _ _ _ Hfv) | apply grows_vars_incl; exact Ga]. }
    { exact (incl_app_l _ _ _ _ Hbd). }
    { eapply incl_tran; [|apply grows_vars_incl; exact Ga]. unfold S'. apply incl_app; [exact (incl_app_r _ _ _ _ Hfv) | exact HS]. }
    { eapply incl_tran; [exact HU | apply grows_vars_incl; exact Ga]. }
    { intros G' Hag. apply ct_xtor. repeat split. exists n, d, sg. repeat split; auto. rewrite Esl.
      apply args_typed_snoc.
      - apply (Hargs G'). intros z Hz. apply Hag. left. unfold S'. apply in_or_app. left. exact Hz.
      - unfold arg_typed. rewrite Hchi. apply HK. eapply agree_mono; [exact Hag | apply grows_vars_incl; exact Ga|].
        unfold S'. apply incl_appr. apply incl_refl. }
    split; [exact W1|]. intros Hc.
    destruct (Hargs G (fun z _ => eq_refl)) as [_ [A2 A3]].
    assert (Hcx : tyd_fv (fvt (CXtor CCns (new_id x) (args' ++ [CConsumer cont]) (CDecl n)))).
    { intros bb Hbb. apply fvt_xtor in Hbb. apply fva_app in Hbb. destruct Hbb as [Hbb|Hbb]; [apply A2; exact Hbb|].
      apply fva_cons in Hbb. destruct Hbb as [Hbb|Hbb]; [apply Hc; exact Hbb | apply fva_nil in Hbb; contradiction]. }
    destruct (W2 Hcx) as [W3 W4]. split; [exact W3 | eapply lifted_ok_trans; eassumption].
  Qed.

  Lemma tw_case_in : forall scrut targs cls ty, TW scrut -> Forall (fun c => TW (clause_body c)) cls ->
    TWin p defs U (FCase scrut targs cls ty) (flat_map cl_names cls)
      (wc_case cur (wc' scrut) (fterm_type scrut) (List.length cls) (fun cont' => clauses_with (fun b => wc' b) cont' cls)).
  Proof.
    intros scrut targs cls ty Hsc Hcl G S cont t st s st' H Hcap Hg Hty Htd Hfv Hbd HS HU HK Hf.
    apply wc_case_inv in H. destruct H as [cont1 [st0 [cls' [st1 [sty0 [Hsh [Ec [Esty Ew]]]]]]]].
    rewrite tg_case in Hg. apply andb_prop in Hg. destruct Hg as [Hgs Hg].
    assert (Etyo : tyo scrut = Some (compile_ty sty0)) by (unfold tyo; rewrite Esty; reflexivity).
    rewrite Etyo in Hg. destruct (compile_ty sty0) as [|n] eqn:En; [discriminate|].
    destruct (find_decl D n) as [d|] eqn:Ed; [|discriminate].
    unfold tyo in Hty. simpl in Hty. apply tyo_ann in Hty. destruct Hty as [ty0 [-> ->]].
    (* the typed free variables of the shared continuation are among those of the original one, so the check
       that guard_capture made of cont carries over to cont1 *)
    assert (Hrc : captures (flat_map cl_names cls) cont1 = false).
    { destruct (Nat.leb (List.length cls) 1 || cont_is_small cont).
      - destruct Hsh as [-> _]. exact Hcap.
      - eapply captures_sub; [|exact Hcap].
        apply (proj2 (Fun2CoreUB.share_fvt cur cont st cont1 st0 Hsh (ct_cont_cns D C defs G _ cont (KT_here D C defs U _ _ _ _ _ HK)))). }
    rewrite fv_case in Hfv. simpl in Hbd. fold (flat_map cl_bnd cls) in Hbd.
    assert (G1 : grows st0 st1) by (eapply clauses_with_grows; exact Ec).
    assert (Gs : grows st1 st') by (eapply wc_grows; exact Ew).
    destruct (cont1_ok p defs cur U _ cont cont1 st st0 (compile_ty ty0) G S Hsh HK Htd HS HU) as [G0 [HK1 Hc1]].
    { eapply Hfind_grows; [|exact Hf]. eapply grows_trans; eassumption. }
    set (S' := flat_map (cont_cl S) cls) in *.
    destruct (tw_clauses p defs cur U cls Hcl G S cont1 ty0 n (ctxtors d) st0 cls' st1 Ec Hg Htd Hrc) as [M1 [M2 M3]]; auto.
    { eapply incl_tran; [exact (incl_app_r _ _ _ _ Hfv) | apply grows_vars_incl; exact G0]. }
    { exact (incl_app_r _ _ _ _ Hbd). }
    { eapply incl_tran; [exact HS | apply grows_vars_incl; exact G0]. }
    { eapply incl_tran; [exact HU | apply grows_vars_incl; exact G0]. }
    { eapply Hfind_grows; eassumption. }
    assert (HS' : incl S' (st_used_vars st)).
    { intros z Hz. unfold S' in Hz. apply in_flat_map in Hz. destruct Hz as [[pl x names ctx body] [Hc Hz]].
      unfold cont_cl in Hz. apply remove_all_In in Hz. destruct Hz as [Hz Hn]. apply in_app_or in Hz.
      destruct Hz as [Hz|Hz]; [|apply HS; exact Hz]. apply Hfv. apply in_or_app. right. apply in_flat_map.
      exists (FClause pl x names ctx body). split; [exact Hc|]. unfold fv_cl. apply remove_all_In. split; assumption. }
    assert (Ust1 : incl (st_used_vars st) (st_used_vars st1)).
    { eapply incl_tran; [apply grows_vars_incl; exact G0 | apply grows_vars_incl; exact G1]. }
    destruct (Hsc G S' (CXCase CCns cls' (CDecl n)) (CDecl n) st1 s st' Ew Hgs Etyo) as [W1 W2]; auto.
    { eapply find_data_tyd; exact Ed. }
    { eapply incl_tran; [exact (incl_app_l _ _ _ _ Hfv) | exact Ust1]. }
    { exact (incl_app_l _ _ _ _ Hbd). }
    { eapply incl_tran; [exact HS' | exact Ust1]. }
    { eapply incl_tran; [exact HU | exact Ust1]. }
    { intros G' Hag. apply ct_xcase. repeat split. exists n, d. repeat split; auto.
      apply (M2 G' st1 (incl_refl _) Hag). }
    split; [exact W1|]. intros Hc. destruct (Hc1 Hc) as [Hc1' L0]. destruct (M3 Hc1') as [M4 M5].
    assert (Hcx : tyd_fv (fvt (CXCase CCns cls' (CDecl n)))).
    { intros bb Hbb. apply fvt_xcase in Hbb. apply M4. exact Hbb. }
    destruct (W2 Hcx) as [W3 W4]. split; [exact W3|].
    eapply lifted_ok_trans; [exact L0|]. eapply lifted_ok_trans; eassumption.
  Qed.

  Lemma tc_new : forall cls ty, Forall (fun c => TW (clause_body c)) cls -> TC (FNew cls ty).
  Proof.
    intros cls ty Hcl G t st c st' H Hg Hty Htd Hfv Hbd HU Hf. rewrite cmp_unfold in H.
    apply cmp_new_inv in H. destruct H as [cls' [ty0 [Ec [-> ->]]]].
    destruct (tyo_fterm_type _ _ Hty) as [? [[= <-] ->]].
    rewrite tg_new, Hty in Hg. destruct (compile_ty ty0) as [|n]; [discriminate|].
    destruct (find_decl C n) as [d|] eqn:Ed; [|discriminate].
    rewrite fv_new in Hfv. simpl in Hbd. fold (flat_map cl_bnd cls) in Hbd.
    destruct (tw_coclauses p defs cur U cls Hcl G n (ctxtors d) st cls' st' Ec Hg) as [M1 [M2 [M3 M4]]]; auto.
    split; [|split; assumption].
    apply ct_xcase. repeat split. exists n, d. repeat split; assumption.
  Qed.

  Lemma tc_label : forall l t' ty, TW t' -> TC (FLabel l t' ty).
  Proof.
    intros l t' ty Ht G t st c st' H Hg Hty Htd0 Hfv Hbd HU Hf. rewrite cmp_unfold in H.
    apply cmp_label_inv in H. destruct H as [ty0 [s0 [-> [Ew ->]]]].
    destruct (tyo_fterm_type _ _ Hty) as [? [[= <-] ->]].
    rewrite tg_label in Hg. apply andb_prop in Hg as [[Htd Hgt]%andb_prop Hh]. apply has_ty_tyo in Hh.
    simpl in Hfv, Hbd.
    assert (HlU : In l U) by (apply Hbd; left; reflexivity).
    set (lb := mkcb (new_id l) CCns (compile_ty ty0)).
    destruct (Ht (lb :: G) [l] (CXVar CCns (new_id l) (compile_ty ty0)) (compile_ty ty0) st s0 st' Ew Hgt Hh Htd) as [W1 W2]; auto.
    { intros z Hz. destruct (string_dec z l) as [->|Hne]; [apply HU; exact HlU|].
      apply Hfv. apply remove_all_In. split; [exact Hz|]. intros [E|[]]. congruence. }
    { exact (incl_cons_r _ _ _ _ Hbd). }
    { intros z [<-|[]]. apply HU. exact HlU. }
    { intros G' Hag. apply ct_var. repeat split. rewrite (Hag l (or_introl (or_introl eq_refl))).
      rewrite clookup_cons. cbn [cbvar lb]. rewrite cident_eqb_refl. reflexivity. }
    destruct (W2 (tyd_fv_var p _ _ _ Htd)) as [W3 W4].
    split; [apply ct_mu; repeat split; exact W1|]. split; [|exact W4].
    intros bb Hbb. apply fvt_mu_1 in Hbb. apply W3. exact Hbb.
  Qed.

  Lemma tw_goto : forall l t' ty, TW t' -> TW (FGoto l t' ty).
  Proof.
    intros l t' ty Ht G S cont t st s st' H Hg Hty Htd Hfv Hbd HS HU HK Hf. rewrite wc_unfold in H.
    apply wc_goto_inv in H. destruct H as [ty0 [Et Ew]].
    rewrite tg_goto in Hg. apply andb_prop in Hg as [[Hv Han]%andb_prop Hgt].
    rewrite Et in Hv, Han. simpl in Han. apply var_ok_look in Hv. destruct Hv as [ty1 [E Hv]]. injection E as <-.
    simpl in Hfv, Hbd.
    assert (Etyo : tyo t' = Some (compile_ty ty0)) by (unfold tyo; rewrite Et; reflexivity).
    destruct (Ht G [l] (CXVar CCns (new_id l) (compile_ty ty0)) (compile_ty ty0) st s st' Ew Hgt Etyo Han) as [W1 W2]; auto.
    { exact (incl_cons_r _ _ _ _ Hfv). }
    { intros z [<-|[]]. apply Hfv. left. reflexivity. }
    { intros G' Hag. apply ct_var. repeat split. rewrite (Hag l (or_introl (or_introl eq_refl))). exact Hv. }
    split; [exact W1|]. intros _. apply W2. apply tyd_fv_var. exact Han.
  Qed.

  Lemma tw_exit : forall a ty, TC a -> TW (FExit a ty).
  Proof.
    intros a ty Ha G S cont t st s st' H Hg Hty Htd Hfv Hbd HS HU HK Hf. rewrite wc_unfold in H.
    apply wc_exit_inv in H. destruct H as [a' [ty0 [Ea [-> ->]]]].
    rewrite tg_exit in Hg. apply andb_prop in Hg as [[Hga Hh]%andb_prop Han].
    apply has_ty_tyo in Hh. simpl in Han, Hfv, Hbd.
    destruct (Ha G CI64 st a' st' Ea Hga Hh eq_refl) as [A1 [A2 A3]]; auto.
    split.
    - apply cs_exit. split; assumption.
    - intros _. split; [|exact A3]. intros bb Hbb. apply fvs_exit in Hbb. apply A2. exact Hbb.
  Qed.

  Theorem tw_all : forall t, TW t /\ TC t.
  Proof.
    apply wc_cmp_ind.
    - apply tw_value.
    - apply tc_stmt.
    - apply tc_var.
    - apply tc_lit.
    - apply tc_op.
    - apply tw_ifc.
    - apply tw_print.
    - intros v vty bound body ty Wb Cb Wbody.
      eapply tw_guard; [intros cont; rewrite wc_unfold; reflexivity | reflexivity | apply tw_let_in; assumption].
    - apply tw_call. exact Hcallee.
    - apply tc_ctor.
    - apply tw_dtor.
    - intros scrut targs cls ty Ws Wcls.
      eapply tw_guard; [intros cont; rewrite wc_unfold; reflexivity | reflexivity | apply tw_case_in; assumption].
    - apply tc_new.
    - apply tc_label.
    - apply tw_goto.
    - apply tw_exit.
    - intros t W Ca. split.
      + intros G S cont ty st s st' H0. rewrite wc_unfold in H0. exact (W G S cont ty st s st' H0).
      + intros G ty st c st' H0. rewrite cmp_unfold in H0. exact (Ca G ty st c st' H0).
  Qed.
End Term.
