(* C01: the composition of Proof/Compose.v with the shrink link DISCHARGED by
   C04_shrink_correct_fragment2: instead of hypothesis H_shrink, boolean conditions on the focused
   program f that the theorem already names (fragment predicates of Sem/FsFrag2.v and the checkers of
   Sem/FsCheck.v). *)
From Coq Require Import List ZArith NArith String Ascii Bool Lia.
From SCC Require Import Base.Sexp Lang.AxSyn Lang.FunSyn Lang.CoreSyn Sem.AxSem Sem.CoreSem Sem.FunSem Sem.X86Sem Sem.FsCheck Sem.FsFrag2
     Model.Backend Model.Fun2Core Model.Focus Model.FocusCheck Model.Shrink Model.Linearize Model.LinCheck Model.X86 Model.Runtime
     Proof.RuntimeProof Proof.LinSim Proof.Compose Proof.ShrinkSem Proof.ShrinkSimClosed.
Import ListNotations.
Open Scope Z_scope.

Lemma out_ok_good : forall o, out_ok o -> ShrinkSem.good o.
Proof. intros o (z & Hz). unfold ShrinkSem.good. rewrite Hz. exact I. Qed.

Section Pipeline2.
Hypothesis fun2core_correct : link_fun2core.
Hypothesis focus_preserves : link_focus.
Hypothesis x86_codegen_correct : link_x86.

Theorem compile_correct_fragment2 :
  forall (p : fcprog) (c : cprog) (f : fsprog) (a : prog) (cs : list xcode) (nargs : nat) (lc lc' : N)
         (args : list Z) (n : nat) (o : obs),
    annotated_fcprog p = true -> effect_sequenced p = true -> barendregt p = true ->
    compile_prog p = Fun2Core.Ok c -> pre_check c = true -> focus_wf c = true ->
    focus_prog c = Backend.Ok f ->
    (* the focused program lies in the fragment of C04_shrink_correct_fragment2 *)
    frag2_prog f = true -> decls_ok f = true -> wt_fs f = true -> unique_binders f = true -> ids_bounded f = true ->
    shrink_prog f = SOk a -> prog_ok a = true ->
    x86_compile (linearize a) lc = Backend.Ok (cs, nargs, lc') ->
    run_fun n p args = o -> out_ok o ->
    (exists outer inner, fst (run_x86 outer inner cs args) = o) /\
    (Forall (fun pz => in_i64 (snd pz)) (fst o) ->
     bytes_of_string (render_prints (fst o)) = flat_map runtime_bytes (fst o)).
Proof.
  intros p c f a cs nargs lc lc' args n o An Es Ba Hc Hpre Hwf Hf F1 F2 F3 F4 F5 Hs Hok Hx Hrun OK.
  pose proof (out_ok_defined o OK) as D.
  destruct (chain_to_linear c f a args o OK) as (m & R);
    [exact (fun2core_correct p c args n o An Es Ba Hc Hrun D) | exact (focus_link focus_preserves c f args o Hpre Hwf Hf OK)
    |intros m R; exact (shrink_correct_fragment2_closed f a m args o F1 F2 F3 F4 F5 Hs R (out_ok_good o OK)) | exact Hok |].
  split; [exact (x86_codegen_correct (linearize a) lc cs nargs lc' args m o Hx R D) | apply render_prints_is_runtime_output].
Qed.
End Pipeline2.
