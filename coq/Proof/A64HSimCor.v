(* C07, all statement forms: corollaries of Proof/A64HSimTop.a64_codegen_simulates.
   - for runs that end with a result the argument count is right (no arity hypothesis);
   - for outputs of the linearization pass the two structural checks (`lin_check_prog`, `ann_check_prog`) are theorems
     (C05 linearize_exact; Proof/X86HAnnLin.linearize_ann, which mentions no back end);
   - `heap_fits` is decided by running the instrumented machine (`fits_run`, shared with x86-64: the bound is the same). *)
From Coq Require Import List ZArith NArith String Bool Lia.
From SCC Require Import Base.Sexp Lang.AxSyn Sem.AxSem Sem.AxHeap Model.Backend Model.A64 Sem.A64Sem Sem.A64Wf
     Model.Linearize Model.LinCheck Proof.LinearizeProof Proof.SimFrag Proof.A64SimAddr Proof.A64SimTop
     Proof.X86HAnn Proof.X86HAnnLin Proof.A64HSimTop.
From SCC Require Model.Heap Proof.AxHeapTyping Proof.X86HSimTop Proof.X86HSimExample.
Import ListNotations.
Open Scope Z_scope.

Theorem fits_run_sound fuel p args : X86HSimExample.fits_run fuel p args = true -> heap_fits p args.
Proof. intros H. apply heap_fits_x86. now apply X86HSimExample.fits_run_sound with (fuel := fuel). Qed.

(* the theorem with every decidable hypothesis in one conjunction, as the examples evaluate them *)
Corollary a64_codegen_simulates_checked p cs n args fuel :
  lin_check_prog p = true /\ ann_check_prog p = true /\ AxHeapTyping.entry_ext p = true /\
  plain_names p = true /\ plain_types p = true /\ lits_i64 p = true /\ tags_i64 p = true /\
  (exists lc', a64_compile p 0 = Ok (cs, n, lc')) /\ asm_wf cs = None /\ code_small cs = true /\
  args_i64 args = true /\ X86HSimExample.fits_run fuel p args = true ->
  List.length args = n -> snd (run_linear fuel p args) <> OOutOfFuel ->
  exists outer inner, fst (run_a64 outer inner cs args) = run_linear fuel p args.
Proof.
  intros (H1 & H2 & H3 & H4 & H5 & HL & HT & (lc' & H6) & H7 & H8 & HA & H9) LEN G.
  exact (a64_codegen_simulates p 0 cs n lc' args fuel _ H1 H2 H3 H4 H5 HL HT H6 H7 H8 LEN HA (fits_run_sound _ _ _ H9) eq_refl G).
Qed.

Corollary a64_codegen_correct_heap p lc cs n lc' args fuel o :
  lin_check_prog p = true -> ann_check_prog p = true -> AxHeapTyping.entry_ext p = true ->
  plain_names p = true -> plain_types p = true -> lits_i64 p = true -> tags_i64 p = true ->
  a64_compile p lc = Ok (cs, n, lc') -> asm_wf cs = None -> code_small cs = true ->
  args_i64 args = true -> heap_fits p args ->
  run_linear fuel p args = o -> defined o = true ->
  exists outer inner, fst (run_a64 outer inner cs args) = o.
Proof.
  intros LIN ANN EE0 PL PLT LI TG XC WF SM AI FIT RUN D.
  assert (G : good o) by (left; unfold defined in D; destruct (snd o); try discriminate; eauto).
  eapply a64_codegen_simulates; eauto; [eapply a64_compile_arity; eauto|apply good_not_oof; exact G].
Qed.

Corollary a64_codegen_correct_linearized a lc cs n lc' args fuel o :
  prog_ok a = true ->
  AxHeapTyping.entry_ext (linearize a) = true -> plain_names (linearize a) = true -> plain_types (linearize a) = true ->
  lits_i64 (linearize a) = true -> tags_i64 (linearize a) = true ->
  a64_compile (linearize a) lc = Ok (cs, n, lc') -> asm_wf cs = None -> code_small cs = true ->
  args_i64 args = true -> heap_fits (linearize a) args ->
  run_linear fuel (linearize a) args = o -> defined o = true ->
  exists outer inner, fst (run_a64 outer inner cs args) = o.
Proof.
  intros OK. intros. eapply a64_codegen_correct_heap; eauto using linearize_exact, linearize_ann.
Qed.
