(* C06, heap statements: the labels inside the code of `x_store` and `x_load` are branch labels `lab<n>` (the label
   discipline of Proof/LabelsX86.v), never '#'-labels, so `labels_at_nh` (what `asm_wf` gives for the image) yields
   `labels_at` for that code. *)
From Coq Require Import List ZArith NArith String Bool Lia FMapPositive.
From SCC Require Proof.LabelGen Proof.LabelsX86.
From SCC Require Import Base.Sexp Lang.AxSyn Sem.AxSem Model.ParMoves Model.Backend Model.X86 Sem.X86Sem Sem.X86Wf
     Generated.Constants Proof.X86State Proof.X86Sel Proof.X86Exec Proof.X86SimRel Proof.X86SimStmt.
Import ListNotations.
Open Scope Z_scope.
Open Scope list_scope.

(* the labels of the store / load code *)
Lemma nh_nil : nh_labels []. Proof. constructor. Qed.
Lemma nh_single c : match c with LAB l => is_hash_label l = false | _ => True end -> nh_labels [c].
Proof. intros H. constructor; [exact H|constructor]. Qed.

Lemma nh_of_fst {X} (p : list xcode * X) c : p = (c, snd p) -> nh_labels (fst p) -> nh_labels c.
Proof. intros E H. rewrite E in H. exact H. Qed.

(* every label the code generator makes up is `lab<n>` (Proof/LabelsX86.v) *)
Lemma nh_labs_ok lc cs lc' : LabelsX86.labs_ok lc cs lc' -> nh_labels cs.
Proof.
  intros (_ & ks & D & _). unfold LabelGen.defs in D.
  assert (H : forall l, In l (flat_map LabelsX86.xdefs cs) -> is_hash_label l = false).
  { intros l Hl. rewrite D in Hl. apply in_map_iff in Hl as (k & <- & _). apply nh_lab. }
  clear D. induction cs as [|c cs IH]; constructor.
  - destruct c; try exact I. apply H. now left.
  - apply IH. intros l Hl. apply H. cbn [flat_map]. apply in_app_iff. now right.
Qed.
Lemma nh_x_store to_store remaining lc cs lc' : x_store to_store remaining lc = Ok (cs, lc') -> nh_labels cs.
Proof. intros H. exact (nh_labs_ok _ _ _ (LabelsX86.store_ok _ _ _ _ _ H)). Qed.
Lemma nh_x_load to_load existing lc cs lc' : x_load to_load existing lc = Ok (cs, lc') -> nh_labels cs.
Proof. intros H. exact (nh_labs_ok _ _ _ (LabelsX86.load_ok _ _ _ _ _ H)). Qed.
