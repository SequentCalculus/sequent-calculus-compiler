(* C16: the layout computed by the model of the `pretty` crate (Model/Pretty.v) is one of the layouts
   the layout-independence theorem quantifies over:   renders d (render width d). *)
From Coq Require Import List ZArith NArith String Ascii Bool Lia.
From SCC Require Import Base.Sexp Lang.FunSyn Model.Printer Model.Parser Model.Pretty
  Proof.StringFacts Proof.FmtDefs Proof.FmtGlue Proof.FmtLex.
Import ListNotations.
Local Open Scope string_scope.

Fixpoint flat_stack (bc : list cmd) : list item :=
  match bc with [] => [] | (_, _, d) :: r => (flat d ++ flat_stack r)%list end.
Fixpoint stack_size (bc : list cmd) : nat :=
  match bc with [] => 0%nat | (_, _, d) :: r => (dsize d + stack_size r)%nat end.

Lemma concat_rev_acc l acc : concat_rev l acc = concat_rev l "" ++ acc.
Proof.
  revert acc. induction l as [|x l IH]; intros acc; cbn [concat_rev]; [reflexivity|].
  rewrite IH, (IH (x ++ "")). rewrite sapp_nil_r. now rewrite sapp_assoc.
Qed.
Lemma concat_rev_cons x l : concat_rev (x :: l) "" = concat_rev l "" ++ x.
Proof. cbn [concat_rev]. rewrite concat_rev_acc. now rewrite sapp_nil_r. Qed.

Lemma blank_spaces n : blankstr (spaces n) = true.
Proof.
  unfold spaces. rewrite N2Nat.inj_iter. induction (N.to_nat n) as [|k IH]; [reflexivity|].
  unfold blankstr in *. simpl. exact IH.
Qed.
Lemma blank_newline n : blankstr (newline n) = true /\ newline n <> "".
Proof. unfold newline. split; [|discriminate]. unfold blankstr. cbn [all_chars]. apply blank_spaces. Qed.
Lemma flat_append a b : flat (DAppend a b) = (flat a ++ flat b)%list.
Proof. unfold flat. cbn [flat_acc]. now rewrite flat_acc_app. Qed.

Lemma best_renders ff width : forall fuel bc pos out, (stack_size bc <= fuel)%nat ->
  exists s', concat_rev (best fuel ff bc pos width out) "" = concat_rev out "" ++ s' /\
             renders_items (flat_stack bc) s'.
Proof.
  induction fuel as [|fuel IH]; intros bc pos out Hf.
  - destruct bc as [|[[i f] d] bc]; [|cbn in Hf; destruct d; cbn in Hf; lia].
    exists "". rewrite sapp_nil_r. split; [reflexivity|constructor].
  - destruct bc as [|[[i f] d] bc].
    + exists "". rewrite sapp_nil_r. split; [reflexivity|constructor].
    + cbn [stack_size] in Hf. destruct d; cbn [best dsize] in *.
      * (* nil *) destruct (IH bc pos out ltac:(lia)) as (s' & E & R). exists s'. split; [exact E | exact R].
      * (* text *)
        destruct (IH bc (pos + text_len a)%N (atom_text a :: out) ltac:(lia)) as (s' & E & R).
        exists (atom_text a ++ s'). rewrite E, concat_rev_cons, sapp_assoc. split; [reflexivity|].
        cbn [flat_stack]. unfold flat. cbn [flat_acc app]. now constructor.
      * (* space *)
        destruct (IH bc (pos + 1)%N (" " :: out) ltac:(lia)) as (s' & E & R).
        exists (" " ++ s'). rewrite E, concat_rev_cons, sapp_assoc. split; [reflexivity|].
        cbn [flat_stack]. unfold flat. cbn [flat_acc app]. constructor; [reflexivity | discriminate | assumption].
      * (* line *)
        destruct f.
        -- destruct (IH bc (pos + 1)%N (" " :: out) ltac:(lia)) as (s' & E & R).
           exists (" " ++ s'). rewrite E, concat_rev_cons, sapp_assoc. split; [reflexivity|].
           cbn [flat_stack]. unfold flat. cbn [flat_acc app]. constructor; [reflexivity | discriminate | assumption].
        -- destruct (IH bc i (newline i :: out) ltac:(lia)) as (s' & E & R).
           exists (newline i ++ s'). rewrite E, concat_rev_cons, sapp_assoc. split; [reflexivity|].
           cbn [flat_stack]. unfold flat. cbn [flat_acc app]. destruct (blank_newline i). now constructor.
      * (* line_ *)
        destruct f.
        -- destruct (IH bc pos out ltac:(lia)) as (s' & E & R).
           exists ("" ++ s'). split; [exact E|].
           cbn [flat_stack]. unfold flat. cbn [flat_acc app]. now constructor.
        -- destruct (IH bc i (newline i :: out) ltac:(lia)) as (s' & E & R).
           exists (newline i ++ s'). rewrite E, concat_rev_cons, sapp_assoc. split; [reflexivity|].
           cbn [flat_stack]. unfold flat. cbn [flat_acc app]. destruct (blank_newline i). now constructor.
      * (* hardline *)
        destruct (IH bc i (newline i :: out) ltac:(lia)) as (s' & E & R).
        exists (newline i ++ s'). rewrite E, concat_rev_cons, sapp_assoc. split; [reflexivity|].
        cbn [flat_stack]. unfold flat. cbn [flat_acc app]. destruct (blank_newline i). now constructor.
      * (* comment: "//", newline, indentation *)
        destruct (IH bc i (spaces i :: comment_text :: out) ltac:(lia)) as (s' & E & R).
        exists (atom_text AComment ++ spaces i ++ s'). rewrite E, !concat_rev_cons, !sapp_assoc. split; [reflexivity|].
        cbn [flat_stack]. unfold flat. cbn [flat_acc app]. constructor. constructor; [apply blank_spaces | assumption].
      * (* append *)
        destruct (IH ((i, f, d1) :: (i, f, d2) :: bc) pos out ltac:(cbn [stack_size]; lia)) as (s' & E & R).
        exists s'. split; [exact E|]. cbn [flat_stack] in *. now rewrite flat_append, <- app_assoc.
      * (* nest *)
        destruct (IH ((nest_ind i i0, f, d) :: bc) pos out ltac:(cbn [stack_size]; lia)) as (s' & E & R).
        exists s'. split; [exact E|]. exact R.
      * (* group *)
        match goal with |- context [best fuel ff ((i, ?fl, d) :: bc)] =>
          destruct (IH ((i, fl, d) :: bc) pos out ltac:(cbn [stack_size]; lia)) as (s' & E & R) end.
        exists s'. split; [exact E|]. exact R.
      * (* align *)
        destruct (IH ((pos, f, d) :: bc) pos out ltac:(cbn [stack_size]; lia)) as (s' & E & R).
        exists s'. split; [exact E|]. exact R.
Qed.

(* The layout the model of `pretty` computes is a rendering in the sense of FmtLex.renders. *)
Theorem render_renders width d : renders d (render width d).
Proof.
  unfold render, renders.
  destruct (best_renders (2 * dsize d + 8) width (2 * dsize d + 8) [(0%N, false, d)] 0%N [])
    as (s' & E & R); [cbn [stack_size]; lia|].
  cbn [concat_rev append] in E. rewrite E. cbn [flat_stack] in R. now rewrite app_nil_r in R.
Qed.
