(* C19: the cost model of the x86-64 back end (Model/X86.v), discharged.
   Every back-end method emits at most  x86_K * (its argument measure)  instructions,
       x86_K = 40 + 13 * FIELDS_PER_BLOCK
   (single operations <= 12; store of n fields <= (1 + n) * (27 + 13 * FIELDS_PER_BLOCK): one block per
   iteration, acquire_block = 19 + 12 * FIELDS_PER_BLOCK because it erases the fields of a recycled
   block; load <= 39 * (1 + n); print <= 5 + 4 * context; parallel moves <= 8 * new + 4 * old).
   With Proof/SizeCodegenWf.v: instructions of `translate` / `x86_compile`. *)
From Coq Require Import String List ZArith NArith Bool Lia.
From SCC Require Import Base.Sexp Lang.AxSyn Lang.AxSize Model.ParMoves Model.Backend Model.X86 Model.Linearize Model.LinCheck Model.SizeWf
     Proof.LinBasics Proof.SubstGraph Proof.SizeLin Proof.SizeCodegen Proof.SizeExchange Proof.SizeCodegenWf.
Import ListNotations.
Open Scope list_scope.
Open Scope N_scope.
Local Arguments N.add : simpl never.
Local Arguments N.mul : simpl never.
Local Arguments N.sub : simpl never.
Local Arguments N.of_nat : simpl never.
Local Arguments len : simpl never.

Notation FPB := FIELDS_PER_BLOCK.

Lemma l_move_from_register : forall t r, len (move_from_register t r) = 1.
Proof. intros t r; destruct t; reflexivity. Qed.
Lemma l_move_to_register : forall r t, len (move_to_register r t) = 1.
Proof. intros r t; destruct t; reflexivity. Qed.
Lemma l_compare : forall a b, len (compare a b) <= 2.
Proof. intros [|] [|]; cbn [compare]; lens; lia. Qed.
Lemma l_compare_immediate : forall t i, len (compare_immediate t i) = 1.
Proof. intros [|] i; reflexivity. Qed.
Lemma l_jump : forall t, len (x_jump t) <= 2.
Proof. intros [|]; cbn [x_jump]; lens; lia. Qed.
Lemma l_load_immediate : forall t i, len (x_load_immediate t i) <= 2.
Proof. intros [|] i; cbn [x_load_immediate]; [|destruct (fits_i32 i)]; lens; lia. Qed.
Lemma l_load_label : forall t l, len (x_load_label t l) <= 2.
Proof. intros [|] l; cbn [x_load_label]; lens; lia. Qed.
Lemma l_add_and_jump : forall t i, len (x_add_and_jump t i) <= 3.
Proof. intros [|] i; cbn [x_add_and_jump]; lens; lia. Qed.
Lemma l_mov : forall t s, len (x_mov t s) <= 2.
Proof. intros [|] [|]; cbn [x_mov move_from_register move_to_register]; lens; lia. Qed.
Lemma l_store_temporary : forall t f, len (x_store_temporary t f) <= 2.
Proof. intros [|] [|]; cbn [x_store_temporary]; lens; lia. Qed.
Lemma l_restore_temporary : forall t f, len (x_restore_temporary t f) <= 2.
Proof. intros [|] [|]; cbn [x_restore_temporary]; lens; lia. Qed.

Lemma l_op_commutative : forall (to_reg : reg -> xtemp -> list xcode) (to_spill : N -> xtemp -> list xcode) t s1 s2,
  (forall r s, len (to_reg r s) <= 1) -> (forall q s, len (to_spill q s) <= 2) ->
  len (op_commutative to_reg to_spill t s1 s2) <= 3.
Proof.
  intros to_reg to_spill t s1 s2 H1 H2. unfold op_commutative.
  destruct t; destruct (xtemp_eqb _ s1); try destruct (xtemp_eqb _ s2); lens; rewrite ?l_move_to_register;
    try (pose proof (H1 r s1); pose proof (H1 r s2); lia);
    try (pose proof (H2 p s1); pose proof (H2 p s2); pose proof (H1 TEMP s2); lia).
Qed.
Lemma l_sub : forall t s1 s2, len (sub t s1 s2) <= 3.
Proof.
  intros t s1 s2. unfold sub.
  assert (R : forall r s, len (sub_to_register r s) = 1) by (intros r [|]; reflexivity).
  assert (S : forall q s, len (sub_to_spill q s) <= 2) by (intros q [|]; cbn [sub_to_spill]; lens; lia).
  destruct t; destruct (xtemp_eqb _ s1); try destruct (xtemp_eqb _ s2); lens; rewrite ?l_move_to_register, ?R;
    try lia; pose proof (S p s2); lia.
Qed.
Lemma l_div_core : forall s, len (div_core s) = 2.
Proof. intros [r|p]; cbn [div_core]; [destruct (N.eqb r RETURN2)|]; reflexivity. Qed.
Lemma l_arith : forall o t a b, len (x_arith o t a b) <= 9.
Proof.
  intros o t a b. destruct o; cbn [x_arith].
  - unfold x_div. lens. rewrite !l_move_from_register, !l_move_to_register, l_div_core. lia.
  - pose proof (l_op_commutative mul_to_register mul_to_spill t a b) as H.
    assert (len (op_commutative mul_to_register mul_to_spill t a b) <= 3); [|lia]. apply H.
    + intros r [|]; reflexivity.
    + intros q [|]; cbn [mul_to_spill]; lens; lia.
  - unfold x_rem. lens. rewrite !l_move_from_register, !l_move_to_register, l_div_core. lia.
  - assert (len (op_commutative add_to_register add_to_spill t a b) <= 3); [|lia]. apply l_op_commutative.
    + intros r [|]; reflexivity.
    + intros q [|]; cbn [add_to_spill]; lens; lia.
  - pose proof (l_sub t a b). lia.
Qed.

Lemma l_save : forall fb regs, len (save_caller_save_registers fb regs) <= len regs + 1.
Proof.
  intros fb regs. unfold save_caller_save_registers. lens. rewrite !len_map.
  pose proof (len_combine_r (nseq 0 (N.of_nat (backup_used fb regs))) (firstn (backup_used fb regs) regs)).
  pose proof (len_firstn_skipn (backup_used fb regs) regs).
  destruct (Nat.even _); lens; unfold reg in *; lia.
Qed.
Lemma l_restore : forall fb regs, len (restore_caller_save_registers fb regs) <= len regs + 1.
Proof.
  intros fb regs. unfold restore_caller_save_registers. lens. rewrite !len_map.
  pose proof (len_combine_r (nseq 0 (N.of_nat (backup_used fb regs))) (firstn (backup_used fb regs) regs)).
  pose proof (len_firstn_skipn (backup_used fb regs) regs).
  pose proof (len_rev (skipn (backup_used fb regs) regs)).
  destruct (Nat.even _); lens; unfold reg in *; lia.
Qed.
Lemma l_csr : forall c, len (snd (caller_save_registers_info c)) <= 2 * len c.
Proof.
  intros c. unfold caller_save_registers_info. cbn [snd].
  set (taken := firstn _ c).
  assert (G : forall (l : list (N * binding)),
    len (flat_map (fun ob : N * binding => let '(offset, b) := ob in
            match bchi b with
            | Ext => [CALLER_SAVE_FIRST + 2 * offset + 1]
            | _ => [CALLER_SAVE_FIRST + 2 * offset; CALLER_SAVE_FIRST + 2 * offset + 1]
            end) l) <= 2 * len l).
  { induction l as [|[o b] r IH]; [cbn [flat_map]; lens; lia|]. cbn [flat_map]. lens. destruct (bchi b); lens; lia. }
  eapply N.le_trans; [apply G|].
  assert (len (combine (nseq 0 (N.of_nat (List.length taken))) taken) <= len taken).
  { unfold len. rewrite combine_length. lia. }
  assert (len taken <= len c) by (unfold taken; apply len_firstn).
  lia.
Qed.
Lemma l_print : forall nl t c, len (x_print nl t c) <= 5 + 4 * len c.
Proof.
  intros nl t c. unfold x_print. pose proof (l_csr c) as H.
  destruct (caller_save_registers_info c) as [fb regs]. cbn [snd] in H. lens.
  pose proof (l_save fb regs). pose proof (l_restore fb regs).
  destruct t; lens; rewrite ?l_move_to_register; lia.
Qed.

Lemma l_ifz : forall cond off th el lc, len (fst (if_zero_then_else cond off th el lc)) = 5 + len th + len el.
Proof. intros. unfold if_zero_then_else. cbn [fst]. lens. lia. Qed.
Lemma l_skip : forall cnd body lc, len (fst (skip_if_zero cnd body lc)) = 3 + len body.
Proof. intros. unfold skip_if_zero. cbn [fst]. lens. rewrite l_compare_immediate. lia. Qed.
Lemma l_erase_valid : forall r lc, len (fst (erase_valid_object r lc)) = 8.
Proof. intros. unfold erase_valid_object. rewrite l_ifz. reflexivity. Qed.
Lemma l_erase_block : forall t lc, len (fst (x_erase_block t lc)) <= 12.
Proof.
  intros [r|p] lc; cbn [x_erase_block].
  - pose proof (l_erase_valid r lc) as H. destruct (erase_valid_object r lc) as [c lc1]. cbn [fst] in H.
    rewrite l_skip. lia.
  - pose proof (l_erase_valid TEMP lc) as H. destruct (erase_valid_object TEMP lc) as [c lc1]. cbn [fst] in H.
    pose proof (l_skip (XR TEMP) c lc1) as H2. destruct (skip_if_zero (XR TEMP) c lc1) as [c2 lc2]. cbn [fst] in *. lens. lia.
Qed.
Lemma l_erase_block_temp : forall lc, len (fst (x_erase_block (XR TEMP) lc)) = 11.
Proof.
  intros lc. cbn [x_erase_block].
  pose proof (l_erase_valid TEMP lc) as H. destruct (erase_valid_object TEMP lc) as [c lc1]. cbn [fst] in H.
  rewrite l_skip. lia.
Qed.
Lemma l_share_block : forall t n lc, len (fst (x_share_block_n t n lc)) <= 5.
Proof. intros [r|p] n lc; cbn [x_share_block_n]; rewrite l_skip; lens; lia. Qed.

Lemma len_nseq : forall s l, len (nseq s l) = l.
Proof. intros. unfold nseq, len. rewrite map_length, seq_length. lia. Qed.
Lemma l_erase_fields : forall r lc, len (fst (erase_fields r lc)) = 12 * FPB.
Proof.
  intros r lc. unfold erase_fields.
  assert (G : forall l c lc0,
    len (fst (fold_left (fun (acc : list xcode * N) (offset : N) =>
               let '(c, lc) := acc in
               let '(c1, lc1) := x_erase_block (XR TEMP) lc in
               (c ++ [MOVL TEMP r (field_offset Fst offset)] ++ c1, lc1)) l (c, lc0))) = len c + 12 * len l).
  { induction l as [|o l IH]; intros c lc0; [cbn [fold_left fst]; lens; lia|].
    cbn [fold_left]. pose proof (l_erase_block_temp lc0) as H. destruct (x_erase_block (XR TEMP) lc0) as [c1 lc1]. cbn [fst] in H.
    rewrite IH. lens. lia. }
  rewrite G, len_nseq. lens. lia.
Qed.
Lemma l_acquire : forall t lc, len (fst (acquire_block t lc)) <= 19 + 12 * FPB.
Proof.
  intros t lc. unfold acquire_block.
  pose proof (l_erase_fields HEAP lc) as H1. destruct (erase_fields HEAP lc) as [ef lc1]. cbn [fst] in H1.
  match goal with |- context [if_zero_then_else FREE None ?a ?b lc1] =>
    pose proof (l_ifz FREE None a b lc1) as H2; destruct (if_zero_then_else FREE None a b lc1) as [inner lc2] end.
  cbn [fst] in H2.
  match goal with |- context [if_zero_then_else HEAP None ?a ?b lc2] =>
    pose proof (l_ifz HEAP None a b lc2) as H3; destruct (if_zero_then_else HEAP None a b lc2) as [outer lc3] end.
  cbn [fst] in *. destruct t; revert H2 H3; lens; intros H2 H3; lia.
Qed.
Lemma l_store_field : forall n c b o code, store_field n c b o = Ok code -> len code <= 2.
Proof. intros n c b o code H. unfold store_field in H. bind H. inversion H; subst. destruct x; lens; lia. Qed.
Lemma l_load_field : forall n c b o code, load_field n c b o = Ok code -> len code <= 2.
Proof. intros n c b o code H. unfold load_field in H. bind H. inversion H; subst. destruct x; lens; lia. Qed.
Lemma l_store_zeros : forall n b, len (store_zeros n b) = n.
Proof.
  intros n b. unfold store_zeros. rewrite <- (len_nseq 0 n) at 2. induction (nseq 0 n) as [|x l IH]; [reflexivity|].
  cbn [flat_map]. lens. unfold store_zero at 1. lens. lia.
Qed.
Lemma l_store_value : forall b rem blk o code, store_value b rem blk o = Ok code -> len code <= 4.
Proof.
  intros b rem blk o code H. unfold store_value in H. bind H. apply l_store_field in E.
  destruct (bchi b).
  - bind H. inversion H; subst. apply l_store_field in E0. lens. lia.
  - bind H. inversion H; subst. apply l_store_field in E0. lens. lia.
  - inversion H; subst. lens. unfold store_zero. lens. lia.
Qed.
Lemma l_store_values : forall l rem blk ff code, store_values l rem blk ff = Ok code -> len code <= 4 * len l + ff.
Proof.
  induction l as [|b l IH]; intros rem blk ff code H; cbn [store_values] in H.
  - inversion H; subst. rewrite l_store_zeros. lens. lia.
  - bind H. bind H. inversion H; subst. apply l_store_value in E. apply IH in E0. lens. lia.
Qed.

(* one block of a store: the link field (<= 2), the padding zeros (<= FPB) and acquire_block (<= 19 + 12 * FPB); the
   stored values themselves are counted per value (4 each) *)
Definition store_unit : N := 21 + 13 * FPB.
Lemma l_store_fields : forall fuel ts rem bp lc code lc',
  store_fields fuel ts rem bp lc = Ok (code, lc') -> len code <= N.of_nat fuel * store_unit + 4 * len ts + 2.
Proof.
  induction fuel as [|f IH]; intros ts rem bp lc code lc' H; [discriminate|].
  rewrite Nat2N.inj_succ, N.mul_succ_l.
  destruct ts as [|b0 ts0].
  - cbn [store_fields] in H. destruct bp.
    + bind H. inversion H; subst. pose proof (l_load_immediate x 0). lia.
    + inversion H; subst. lens. lia.
  - cbn [store_fields] in H. remember (b0 :: ts0) as ts eqn:Ets. clear Ets b0 ts0.
    bind H. rename x into c0. bind H. rename x into c1. bind H. rename x into t.
    set (cap := FPB - bp_n bp) in *.
    set (rl := if N.leb (N.of_nat (List.length ts)) cap then 0 else N.of_nat (List.length ts) - cap) in *.
    pose proof (l_acquire t lc) as HA. destruct (acquire_block t lc) as [c2 lc2]. cbn [fst] in HA.
    bind H. destruct x as [c3 lc3]. inversion H; subst; clear H.
    apply IH in E2. apply l_store_values in E0.
    assert (H0 : len c0 <= 2).
    { destruct bp; [inversion E; subst; lens; lia | eapply l_store_field; eauto]. }
    assert (Hcap : cap <= FPB) by (unfold cap; lia).
    pose proof (len_rev (skipn (N.to_nat rl) ts)) as Hrev.
    pose proof (len_firstn_skipn (N.to_nat rl) ts).
    lens. unfold store_unit in *. lia.
Qed.
Lemma l_store : forall a r lc code lc', x_store a r lc = Ok (code, lc') -> len code <= (27 + 13 * FPB) * (1 + len a).
Proof.
  intros a r lc code lc' H. unfold x_store in H. apply l_store_fields in H.
  rewrite Nat2N.inj_succ in H. fold (len a) in H. unfold store_unit in H. lia.
Qed.

Lemma l_load_value : forall b ex blk o m lc code lc', load_value b ex blk o m lc = Ok (code, lc') -> len code <= 9.
Proof.
  intros b ex blk o m lc code lc' H. unfold load_value in H. bind H. apply l_load_field in E.
  destruct (bchi b); [| |inversion H; subst; lia].
  (* Prd and Cns alike *)
  all: bind H; bind H; apply l_load_field in E0; destruct m; [inversion H; subst; lens; lia|].
  all: match type of H with context [x_share_block_n ?t ?n ?l] =>
         pose proof (l_share_block t n l) as HS; destruct (x_share_block_n t n l) as [c3 lc1] end.
  all: cbn [fst] in HS; inversion H; subst; lens; lia.
Qed.
Lemma l_load_values : forall l ex blk ff m lc code lc', load_values l ex blk ff m lc = Ok (code, lc') -> len code <= 9 * len l.
Proof.
  induction l as [|b l IH]; intros ex blk ff m lc code lc' H; cbn [load_values] in H.
  - inversion H; subst. lens. lia.
  - bind H. destruct x as [c1 lc1]. bind H. destruct x as [c2 lc2]. inversion H; subst.
    apply l_load_value in E. apply IH in E0. lens. lia.
Qed.
Lemma l_release : forall r, len (release_block r) = 2.
Proof. reflexivity. Qed.
(* 9 per value (l_load_value); 7 per block: the link field (<= 2), release_block (<= 2) and, when the block pointer is
   spilled, saving the scratch register, loading the pointer and restoring it (<= 3) *)
Lemma l_load_fields : forall fuel tl ex bp m rf lc code rf' lc',
  load_fields fuel tl ex bp m rf lc = Ok (code, rf', lc') -> len code <= N.of_nat fuel * 7 + 9 * len tl.
Proof.
  induction fuel as [|f IH]; intros tl ex bp m rf lc code rf' lc' H; [discriminate|].
  rewrite Nat2N.inj_succ, N.mul_succ_l.
  destruct tl as [|b0 tl0].
  - cbn [load_fields] in H. inversion H; subst. lens. lia.
  - cbn [load_fields] in H. remember (b0 :: tl0) as tl eqn:Etl. clear Etl b0 tl0.
    set (cap := FPB - bp_n bp) in *.
    set (rl := if N.leb (N.of_nat (List.length tl)) cap then 0 else N.of_nat (List.length tl) - cap) in *.
    bind H. destruct x as [[c0 freed0] lc0]. bind H. rename x into mb.
    apply IH in E.
    pose proof (len_rev (skipn (N.to_nat rl) tl)) as Hrev.
    pose proof (len_firstn_skipn (N.to_nat rl) tl).
    destruct mb as [mr|mp].
    + bind H. rename x into c2. bind H. destruct x as [c3 lc3]. inversion H; subst; clear H.
      apply l_load_values in E2.
      assert (len c2 <= 2) by (destruct bp; [inversion E1; subst; lens; lia | eapply l_load_field; eauto]).
      assert (len (match m with Release => release_block mr | Share => [] end) <= 2) by (destruct m; [rewrite l_release|lens]; lia).
      lens. lia.
    + bind H. rename x into c2. bind H. destruct x as [c3 lc3]. inversion H; subst; clear H.
      apply l_load_values in E2.
      assert (len c2 <= 2) by (destruct bp; [inversion E1; subst; lens; lia | eapply l_load_field; eauto]).
      assert (len (match m with Release => release_block TEMPORARY_TEMP | Share => [] end) <= 2) by (destruct m; [rewrite l_release|lens]; lia).
      assert (len (if freed0 then [] else [MOVS TEMPORARY_TEMP STACK (stack_offset SPILL_TEMP)]) <= 1) by (destruct freed0; lens; lia).
      assert (len (match bp with Last => [MOVL TEMPORARY_TEMP STACK (stack_offset SPILL_TEMP)] | Other => [] end) <= 1) by (destruct bp; lens; lia).
      lens. lia.
Qed.
(* both branches of the reference-count test are emitted, each a load_fields with fuel 1 + n:
   5 + 2 * (7 * (1 + n) + 9 * n) <= 38 * (1 + n) *)
Lemma l_load_register : forall blk tl ex lc code lc', load_register blk tl ex lc = Ok (code, lc') -> len code <= 38 * (1 + len tl).
Proof.
  intros blk tl ex lc code lc' H. unfold load_register in H.
  bind H. destruct x as [[th f1] lc1]. bind H. destruct x as [[el f2] lc2].
  apply l_load_fields in E. apply l_load_fields in E0. rewrite Nat2N.inj_succ in *. fold (len tl) in *.
  match type of H with Ok ?p = _ => assert (HI : fst p = code) by (inversion H; reflexivity) end.
  rewrite <- HI, l_ifz. lens. lia.
Qed.
Lemma l_load : forall a r lc code lc', x_load a r lc = Ok (code, lc') -> len code <= 39 * (1 + len a).
Proof.
  intros a r lc code lc' H. unfold x_load in H. destruct a as [|b0 a0]; [inversion H; subst; lens; lia|].
  remember (b0 :: a0) as a. clear Heqa b0 a0.
  bind H. destruct x as [mr|mp].
  - apply l_load_register in H. lia.
  - bind H. destruct x as [c1 lc1]. cbn [fst snd] in H. inversion H; subst. apply l_load_register in E0. lens. lia.
Qed.

Lemma x86_K_ge : 40 <= x86_K.
Proof. unfold x86_K. lia. Qed.

Lemma x86_with_ok : forall mark, backend_ok (x86_backend_with mark).
Proof.
  intros mark. destruct x86_backend_ok as [A1 A2 A3 A4]. split; [exact A1 | exact A2 | exact A3 | exact A4].
Qed.

Section X86.
Variable mark : ctx -> list xcode.
Hypothesis mark_len : forall c, len (mark c) <= 1.
Let B := x86_backend_with mark.

Lemma x86_exchange : forall re c code, NoDup (ids c) -> NoDup (new_ids_of re) ->
  code_exchange B (transpose re c) c (map fst re) = Ok code -> len code <= x86_K * (1 + len c + len re).
Proof.
  intros re c code N1 N2 H.
  pose proof (exchange_len B (x86_with_ok mark) 2 l_mov l_store_temporary l_restore_temporary c re code N1 N2 H) as G.
  pose proof x86_K_ge. nia.
Qed.

Theorem x86_cost_model_wf : cost_model_wf B x86_K.
Proof.
  pose proof x86_K_ge as HK. unfold cost_model_wf.
  cbn [B x86_backend_with b_mark b_jump b_jump_label b_jump_label_fixed b_jcc2 b_jcc1
    b_load_immediate b_load_label b_add_and_jump b_arith b_mov b_print b_erase b_share_n b_store b_load].
  repeat split.
  - lia.
  - intros c. pose proof (mark_len c). lia.
  - intros t. pose proof (l_jump t). lia.
  - intros l. lens. lia.
  - intros l. lens. lia.
  - intros so a b l. lens. pose proof (l_compare a b). lia.
  - intros so a l. lens. rewrite l_compare_immediate. lia.
  - intros t z. pose proof (l_load_immediate t z). lia.
  - intros t l. pose proof (l_load_label t l). lia.
  - intros t z. pose proof (l_add_and_jump t z). lia.
  - intros o a b c. pose proof (l_arith o a b c). lia.
  - intros a b. pose proof (l_mov a b). lia.
  - intros nl t c. pose proof (l_print nl t c). nia.
  - intros t lc. pose proof (l_erase_block t lc). lia.
  - intros t n lc. pose proof (l_share_block t n lc). lia.
  - intros a r lc code lc' H. apply l_store in H. unfold x86_K. nia.
  - intros a r lc code lc' H. apply l_load in H. nia.
  - exact x86_exchange.
Qed.

Theorem x86_translate_size : forall types ds lc code lc',
  sub_wf_defs ds = true ->
  translate B types ds lc = Ok (code, lc') -> len code <= x86_K * cg_bound_defs ds.
Proof. apply translate_size_wf. exact x86_cost_model_wf. Qed.
End X86.

Lemma l_move_arguments : forall n code, move_arguments n = Ok code -> len code <= 5.
Proof.
  assert (G : forall n code, move_arguments n = Ok code -> len code = N.of_nat n /\ (n <= 5)%nat).
  { induction n as [|m IH]; intros code H; cbn [move_arguments] in H; [inversion H; subst; split; [reflexivity|lia]|].
    destruct (Nat.ltb 5 (S m)) eqn:E; [discriminate|]. apply Nat.ltb_ge in E.
    bind H. inversion H; subst. destruct (IH _ eq_refl) as [L _]. lens. split; lia. }
  intros n code H. apply G in H. lia.
Qed.

(* the whole routine (preamble, setup, code, cleanup) of a program whose Substitutes are well formed *)
Theorem x86_compile_size : forall p lc r n lc',
  sub_wf_prog p = true -> x86_compile p lc = Ok (r, n, lc') -> len r <= x86_bound p.
Proof.
  intros p lc r n lc' HW H. unfold x86_compile, x86_compile_with in H.
  destruct (compile x86_backend p lc) as [[[is n0] lc0]|e] eqn:E; [|discriminate]. cbn [rbind] in H.
  destruct (into_x86_64_routine is n0) as [rt|e] eqn:E0; [|discriminate]. cbn [rbind] in H. inversion H; subst; clear H.
  unfold compile in E. unfold x86_bound, sub_wf_prog in *. destruct (pdefs p) as [|d0 ds]; [discriminate|].
  destruct (translate x86_backend (ptypes p) (d0 :: ds) lc) as [[c1 lc1]|e] eqn:E1; [|discriminate].
  cbn [rbind fst snd] in E. inversion E; subst; clear E.
  apply (x86_translate_size (fun _ => [])) in E1; [|intros; lens; lia|exact HW].
  unfold into_x86_64_routine in E0. destruct (setup (List.length (dctx d0))) as [st|e] eqn:E2; [|discriminate].
  cbn [rbind] in E0. inversion E0; subst; clear E0.
  unfold setup in E2. destruct (move_arguments (List.length (dctx d0))) as [ma|e] eqn:E3; [|discriminate].
  cbn [rbind] in E2. inversion E2; subst; clear E2. apply l_move_arguments in E3.
  unfold x86_routine_overhead. lens. unfold preamble, cleanup. lens. lia.
Qed.
