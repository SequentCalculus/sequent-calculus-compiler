(* C06, heap statements: where the clauses of a Switch / a Create sit in the image and how control reaches them.
     mk_image_back      an indirect jump to the address of ANY placed instruction enters at the first
                        instruction placed at that address and reaches the instruction through zero-size
                        pseudo-instructions (labels, directives), the state unchanged;
     gclauses           the code of the clauses, generically in the load code and the body context
                        (Create: load the captured environment after the clause context; Switch: load the
                        clause context after the rest of the context);
     dispatch_layout    `LAB fresh; jump table (for two or more clauses); clauses`: the address of the label
                        (+ 5k for table entry k) leads to the code `load ++ body` of clause k. *)
From Coq Require Import List ZArith NArith String Bool Lia FMapPositive.
From SCC Require Proof.BackendInv.
From SCC Require Import Base.Sexp Lang.AxSyn Sem.AxSem Model.ParMoves Model.Backend Model.X86 Sem.X86Sem Sem.X86Wf
     Model.Linearize Model.LinCheck Generated.Constants Proof.LinBasics
     Proof.X86State Proof.X86Sel Proof.X86Exec Proof.X86ParMoves Proof.SubstGraph Proof.X86Subst
     Proof.X86SimRel Proof.X86SimStmt Proof.X86SimAddr Proof.X86SimClo.
Import ListNotations.
Open Scope Z_scope.
Open Scope list_scope.

Lemma zero_size_step im c s : isize c = 0 -> step im c s = Next s.
Proof. destruct c; cbn [isize]; intros H; try lia; reflexivity. Qed.

Lemma zero_run (cs : list xcode) : forall n, exists m, (m <= n)%nat /\
  (forall j c, (m <= j < n)%nat -> nth_error cs j = Some c -> isize c = 0) /\
  (m = O \/ exists c0, nth_error cs (m - 1) = Some c0 /\ 0 < isize c0).
Proof.
  induction n as [|n (m & Hm & Z & P)].
  - exists O. split; [lia|]. split; [intros j c Hj; lia|now left].
  - destruct (nth_error cs n) as [c|] eqn:Hn.
    + destruct (Z.eq_dec (isize c) 0) as [E|E].
      * exists m. split; [lia|]. split; [|exact P]. intros j cj Hj Hc.
        destruct (Nat.eq_dec j n) as [->|NE]; [congruence|apply (Z j cj); [lia|exact Hc]].
      * exists (S n). split; [lia|]. split; [intros j cj Hj; lia|]. right. exists c. cbn [Nat.sub]. rewrite Nat.sub_0_r.
        split; [exact Hn|]. pose proof (isize_nonneg c). lia.
    + exists m. split; [lia|]. split; [|exact P]. intros j cj Hj Hc.
      destruct (Nat.eq_dec j n) as [->|NE]; [congruence|apply (Z j cj); [lia|exact Hc]].
Qed.
Lemma size_zero_run (cs : list xcode) : forall n m, (m <= n)%nat -> (n <= List.length cs)%nat ->
  (forall j c, (m <= j < n)%nat -> nth_error cs j = Some c -> isize c = 0) ->
  size_of (firstn n cs) = size_of (firstn m cs).
Proof.
  induction n as [|n IH]; intros m Hm Hl Z; [replace m with O by lia; reflexivity|].
  destruct (Nat.eq_dec m (S n)) as [->|NE]; [reflexivity|].
  destruct (nth_error cs n) as [c|] eqn:Hn; [|apply nth_error_None in Hn; lia].
  rewrite (firstn_S_size cs n c Hn), (Z n c ltac:(lia) Hn), Z.add_0_r.
  apply IH; [lia|lia|]. intros j cj Hj. apply Z. lia.
Qed.

(* the image built by mk_image *)
Definition back_ok (im : image) : Prop :=
  forall pc c a, PM.find pc (code im) = Some c -> PM.find pc (addr_of im) = Some a ->
    exists i0, PM.find (key a) (index_at im) = Some i0 /\ forall s, exec_to im i0 s pc s.

Theorem mk_image_back cs : back_ok (mk_image cs).
Proof.
  intros pc c a Hc Ha.
  apply build_code_inv in Hc as [Hc|(n & -> & Hn)]; [cbn in Hc; rewrite PM.gempty in Hc; discriminate|].
  unfold mk_image in Ha. rewrite (build_addr_nth cs _ _ _ n c Hn) in Ha.
  assert (Ea : a = CODE_BASE + size_of (firstn n cs)) by congruence. subst a. clear Ha.
  destruct (zero_run cs n) as (m & Hm & Z & P).
  assert (Ln : (n < List.length cs)%nat) by (apply nth_error_Some; congruence).
  destruct (nth_error cs m) as [cm|] eqn:Hcm; [|apply nth_error_None in Hcm; lia].
  rewrite (size_zero_run cs n m Hm ltac:(lia) Z).
  exists (padd 1%positive m). split.
  - apply (build_index_first cs 1%positive CODE_BASE _ m cm); [reflexivity|exact Hcm| |exact P].
    intros b _. cbn. apply PM.gempty.
  - intros s. assert (G : forall d, (m + d <= n)%nat -> exec_to (mk_image cs) (padd 1%positive m) s (padd 1%positive (m + d)) s).
    { induction d as [|d IHd]; intros Hd; [rewrite Nat.add_0_r; apply exec_refl|].
      eapply exec_to_trans; [apply IHd; lia|].
      destruct (nth_error cs (m + d)) as [cd|] eqn:Hcd; [|apply nth_error_None in Hcd; lia].
      eapply exec_next; [apply (build_code_nth cs 1%positive CODE_BASE _ (m + d) cd Hcd)|apply zero_size_step; apply (Z (m + d)%nat cd); [lia|exact Hcd]|].
      rewrite <- padd_succ. replace (S (m + d)) with (m + S d)%nat by lia. apply exec_refl. }
    specialize (G (n - m)%nat ltac:(lia)). now replace (m + (n - m))%nat with n in G by lia.
Qed.

(* the code of a list of clauses, generically *)
Section GC.
Variables (types : list tydecl) (ld : ctx -> N -> res (list xcode * N)) (bc : ctx -> ctx) (fresh : string).
(* the clause loop of Switch and Create (Proof/BackendInv.v) at the x86-64 back end *)
Definition gclauses : list clause -> N -> res (list xcode * N) := BackendInv.cl_loop x86_backend types fresh ld bc.

Lemma gclauses_nth : forall cls lc c5 lc' k x cx body,
  gclauses cls lc = Ok (c5, lc') -> nth_error cls k = Some (x, cx, body) ->
  exists pre lc0 cl lc1 cb lc2 post,
    c5 = pre ++ [LAB (fresh +++ "_" +++ show_ident x)] ++ cl ++ cb ++ post /\
    ld cx lc0 = Ok (cl, lc1) /\ xcs types body (bc cx) lc1 = Ok (cb, lc2) /\ (k = O -> pre = []).
Proof.
  induction cls as [|[[x0 cx0] body0] r IH]; intros lc c5 lc' k x cx body H Hk; [destruct k; discriminate|].
  unfold gclauses in H. cbn [BackendInv.cl_loop] in H. fold gclauses in H. cbn [b_label x86_backend x86_backend_with] in H.
  destruct (ld cx0 lc) as [[cl lc1]|] eqn:LD; cbn [rbind] in H; [|discriminate].
  destruct (xcs types body0 (bc cx0) lc1) as [[cb lc2]|] eqn:BD; cbn [rbind] in H; [|discriminate].
  destruct (gclauses r lc2) as [[cr lc3]|] eqn:RS; cbn [rbind] in H; [|discriminate].
  inversion H; subst c5 lc'. destruct k as [|k]; cbn [nth_error] in Hk.
  - inversion Hk; subst. exists [], lc, cl, lc1, cb, lc2, cr. auto.
  - destruct (IH _ _ _ _ _ _ _ RS Hk) as (pre & lc0 & cl' & lc1' & cb' & lc2' & post & -> & L & B & _).
    exists ([LAB (fresh +++ "_" +++ show_ident x0)] ++ cl ++ cb ++ pre), lc0, cl', lc1', cb', lc2', post.
    split; [|split; [auto|split; [auto|discriminate]]]. rewrite <- !app_assoc. reflexivity.
Qed.
End GC.

Section Layout.
Variable im : image.
Hypothesis IMG : img_ok im.
Hypothesis BACK : back_ok im.

(* arriving at table entry k >= 1: the instruction before it is a 5-byte jump *)
Lemma table_entry_k pcl fresh cls R a :
  code_at im pcl ([LAB fresh] ++ code_table x86_backend cls fresh ++ R) ->
  PM.find pcl (addr_of im) = Some a ->
  forall k, (S k < List.length cls)%nat ->
    PM.find (key (a + 5 * Z.of_nat (S k))) (index_at im) = Some (padd pcl (1 + S k)) /\
    PM.find (padd pcl (1 + S k)) (addr_of im) = Some (a + 5 * Z.of_nat (S k)).
Proof.
  intros CA A k Hk.
  set (tb := code_table x86_backend cls fresh) in *.
  assert (LT : List.length tb = List.length cls) by apply code_table_length.
  assert (NTH : forall j cj, nth_error tb j = Some cj -> nth_error ([LAB fresh] ++ tb ++ R) (1 + j) = Some cj).
  { intros j cj Ej. cbn [app Nat.add nth_error]. rewrite nth_error_app1; [exact Ej|]. apply nth_error_Some. congruence. }
  assert (ADDR : forall j, (j < List.length cls)%nat -> PM.find (padd pcl (1 + j)) (addr_of im) = Some (a + 5 * Z.of_nat j)).
  { intros j Hj. destruct (nth_error tb j) as [cj|] eqn:Ej; [|apply nth_error_None in Ej; lia].
    rewrite (addr_along im IMG _ pcl a CA A (1 + j) cj (NTH j cj Ej)).
    f_equal. cbn [app Nat.add firstn size_of isize]. rewrite firstn_app.
    replace (j - List.length tb)%nat with O by lia. cbn [firstn]. rewrite app_nil_r.
    unfold tb. rewrite code_table_size by lia. lia. }
  destruct (nth_error tb k) as [ck|] eqn:Ek; [|apply nth_error_None in Ek; lia].
  destruct (nth_error tb (S k)) as [ck'|] eqn:Ek'; [|apply nth_error_None in Ek'; lia].
  assert (CK : PM.find (padd pcl (1 + k)) (code im) = Some ck) by (apply CA, NTH, Ek).
  assert (CK' : PM.find (Pos.succ (padd pcl (1 + k))) (code im) = Some ck').
  { rewrite <- padd_succ. apply (CA (S (1 + k))). apply (NTH (S k)), Ek'. }
  assert (SZ : isize ck = 5).
  { unfold tb, code_table in Ek. cbn [b_jump_label_fixed x86_backend x86_backend_with] in Ek.
    clear -Ek. revert k Ek. induction cls as [|c0 r IH]; intros k Ek; [destruct k; discriminate|].
    cbn [flat_map app] in Ek. destruct k; cbn [nth_error] in Ek; [inversion Ek; reflexivity|eauto]. }
  pose proof (io_index im IMG _ ck ck' _ CK CK' ltac:(lia) (ADDR k ltac:(lia))) as IXk.
  rewrite SZ in IXk. replace (a + 5 * Z.of_nat (S k)) with (a + 5 * Z.of_nat k + 5) by lia.
  split; [|rewrite (ADDR (S k) ltac:(lia)); f_equal; lia].
  rewrite IXk. f_equal. rewrite <- padd_succ. reflexivity.
Qed.

(* the label, the table and the clauses: where clause k is, and how the address of the label leads there *)
Lemma dispatch_layout types ld bc pcl fresh cls c5 lc3 lc5 a :
  code_at im pcl (([LAB fresh] ++ table_or_nil cls fresh) ++ c5) ->
  labels_at_nh im pcl (([LAB fresh] ++ table_or_nil cls fresh) ++ c5) ->
  is_hash_label fresh = false ->
  gclauses types ld bc fresh cls lc3 = Ok (c5, lc5) ->
  PM.find pcl (addr_of im) = Some a ->
  forall k c, nth_error cls k = Some c ->
    exists i pcc lcl cl lcb cb lcb',
      PM.find (key (a + (if Nat.leb (List.length cls) 1 then 0 else jump_length (N.of_nat k)))) (index_at im) = Some i /\
      (exists pca, PM.find pca (addr_of im) = Some (a + (if Nat.leb (List.length cls) 1 then 0 else jump_length (N.of_nat k)))) /\
      (forall s, exec_to im i s pcc s) /\
      (Nat.leb (List.length cls) 1 = true -> forall s, exec_to im pcl s pcc s) /\
      ld (cl_ctx c) lcl = Ok (cl, lcb) /\ xcs types (cl_body c) (bc (cl_ctx c)) lcb = Ok (cb, lcb') /\
      code_at im pcc (cl ++ cb) /\ labels_at_nh im pcc (cl ++ cb).
Proof.
  intros CA LA NH CC AL k c Hk.
  rewrite <- !app_assoc in CA, LA.
  destruct c as [[x cx] body].
  destruct (gclauses_nth types ld bc fresh _ _ _ _ k x cx body CC Hk) as (pre5 & lc0 & cl & lc1 & cb & lc2 & post5 & E5 & LD & BD & PRE0).
  cbn [cl_ctx cl_body fst snd] in *.
  assert (Lk : (k < List.length cls)%nat) by (apply nth_error_Some; congruence).
  set (tb := table_or_nil cls fresh) in *.
  set (lx := fresh +++ "_" +++ show_ident x) in *.
  assert (CODE : code_at im pcl ([LAB fresh] ++ tb ++ pre5 ++ [LAB lx] ++ (cl ++ cb) ++ post5)).
  { rewrite E5 in CA. repeat rewrite <- app_assoc in CA. repeat rewrite <- app_assoc. cbn [app] in *. exact CA. }
  assert (LABS : labels_at_nh im pcl ([LAB fresh] ++ tb ++ pre5 ++ [LAB lx] ++ (cl ++ cb) ++ post5)).
  { rewrite E5 in LA. repeat rewrite <- app_assoc in LA. repeat rewrite <- app_assoc. cbn [app] in *. exact LA. }
  set (jl := (1 + List.length tb + List.length pre5)%nat).
  assert (NL : nth_error ([LAB fresh] ++ tb ++ pre5 ++ [LAB lx] ++ (cl ++ cb) ++ post5) jl = Some (LAB lx)).
  { unfold jl. cbn [app Nat.add nth_error]. rewrite nth_error_app2 by lia. rewrite nth_error_app2 by lia.
    replace (_ - _ - _)%nat with O by lia. reflexivity. }
  pose proof (code_at_nth im pcl _ jl _ CODE NL) as CLx.
  pose proof (LABS jl _ NL (nh_sub_label fresh (show_ident x) NH)) as FLx.
  assert (CB : code_at im (padd pcl (S jl)) (cl ++ cb) /\ labels_at_nh im (padd pcl (S jl)) (cl ++ cb)).
  { pose proof CODE as CODE'. pose proof LABS as LABS'.
    replace ([LAB fresh] ++ tb ++ pre5 ++ [LAB lx] ++ (cl ++ cb) ++ post5)
      with (([LAB fresh] ++ tb ++ pre5 ++ [LAB lx]) ++ (cl ++ cb) ++ post5) in CODE', LABS'
      by (rewrite <- !app_assoc; reflexivity).
    apply code_at_app in CODE' as [_ CODE']. apply code_at_app in CODE' as [CODE' _].
    apply labels_at_nh_app in LABS' as [_ LABS']. apply labels_at_nh_app in LABS' as [LABS' _].
    replace (List.length ([LAB fresh] ++ tb ++ pre5 ++ [LAB lx])) with (S jl) in CODE', LABS'
      by (unfold jl; rewrite !app_length; cbn [List.length]; lia).
    auto. }
  destruct CB as [CB LB].
  assert (INTO : forall s, exec_to im (padd pcl jl) s (padd pcl (S jl)) s).
  { intros s. eapply exec_next; [exact CLx|reflexivity|]. rewrite <- padd_succ. apply exec_refl. }
  pose proof CODE as CODE0. apply code_at_cons in CODE0 as [C0 _].
  destruct (BACK pcl _ a C0 AL) as (i0 & IX0 & B0).
  destruct (Nat.leb (List.length cls) 1) eqn:LE.
  - (* at most one clause: the label of the dispatch is followed by the label of the clause *)
    assert (TB : tb = []) by (unfold tb, table_or_nil; now rewrite LE).
    assert (K0 : k = O) by (apply Nat.leb_le in LE; lia). subst k.
    assert (P5 : pre5 = []) by (apply PRE0; reflexivity).
    assert (J1 : jl = 1%nat) by (unfold jl; rewrite TB, P5; reflexivity).
    assert (DOWN : forall s, exec_to im pcl s (padd pcl (S jl)) s).
    { intros s. eapply exec_next; [exact C0|reflexivity|].
      specialize (INTO s). rewrite J1 in INTO. cbn [padd] in INTO. rewrite J1. cbn [padd]. exact INTO. }
    exists i0, (padd pcl (S jl)), lc0, cl, lc1, cb, lc2.
    split; [rewrite Z.add_0_r; exact IX0|]. split; [exists pcl; rewrite Z.add_0_r; exact AL|]. split; [intros s; eapply exec_to_trans; [apply B0|apply DOWN]|].
    split; [intros _; exact DOWN|]. repeat split; auto.
  - (* the jump table *)
    assert (TB : tb = code_table x86_backend cls fresh) by (unfold tb, table_or_nil; now rewrite LE).
    rewrite TB in CODE.
    assert (CJ : PM.find (padd pcl (1 + k)) (code im) = Some (JMPLN lx)).
    { apply CODE. cbn [app Nat.add nth_error]. rewrite nth_error_app1 by (rewrite code_table_length; lia).
      apply (code_table_nth cls fresh k (x, cx, body) Hk). }
    assert (FROM : forall s, exec_to im (padd pcl (1 + k)) s (padd pcl (S jl)) s).
    { intros s. eapply exec_jump; [exact CJ|cbn [step]; unfold goto_label; rewrite FLx; reflexivity|]. apply INTO. }
    destruct k as [|k].
    + exists i0, (padd pcl (S jl)), lc0, cl, lc1, cb, lc2.
      split; [unfold jump_length; cbn [N.of_nat Z.of_N]; rewrite Z.mul_0_r, Z.add_0_r; exact IX0|].
      split; [exists pcl; unfold jump_length; cbn [N.of_nat Z.of_N]; rewrite Z.mul_0_r, Z.add_0_r; exact AL|].
      split; [|split; [discriminate|repeat split; auto]].
      intros s. eapply exec_to_trans; [apply B0|]. eapply exec_next; [exact C0|reflexivity|]. apply (FROM s).
    + exists (padd pcl (1 + S k)), (padd pcl (S jl)), lc0, cl, lc1, cb, lc2.
      destruct (table_entry_k pcl fresh cls _ a CODE AL k Lk) as [TE1 TE2].
      split; [unfold jump_length; rewrite nat_N_Z; exact TE1|].
      split; [exists (padd pcl (1 + S k)); unfold jump_length; rewrite nat_N_Z; exact TE2|].
      split; [exact FROM|split; [discriminate|repeat split; auto]].
Qed.
End Layout.
