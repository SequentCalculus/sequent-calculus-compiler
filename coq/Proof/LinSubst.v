(* Renamings (`sub_s`) as used by the simulation proof: identity, composition, free variables of a
   renamed statement, and scoping from `ax_check`. *)
From Coq Require Import String List ZArith NArith Bool Lia Permutation.
From SCC Require Import Base.Sexp Lang.AxSyn Model.Linearize Model.LinCheck.
From SCC Require Import Proof.LinBasics Proof.LinTyping.
Import ListNotations.
Open Scope list_scope.
Open Scope N_scope.

Lemma sub_id_nil : forall x, sub_id [] x = x.
Proof. reflexivity. Qed.
Lemma sub_b_nil : forall b, sub_b [] b = b.
Proof. intros [v c t]; reflexivity. Qed.
Lemma map_sub_b_nil : forall c, map (sub_b []) c = c.
Proof. induction c as [|b c IH]; simpl; auto. rewrite sub_b_nil, IH; auto. Qed.
Lemma map_cls_id : forall (f : stmt -> stmt) (cls : list clause),
  Forall (fun c => f (cl_body c) = cl_body c) cls ->
  map (fun c => (cl_xtor c, cl_ctx c, f (cl_body c))) cls = cls.
Proof.
  induction cls as [|[[x cc] b] r IH]; intros H; simpl; auto. inversion H; subst.
  unfold cl_xtor, cl_ctx, cl_body in *; simpl in *. rewrite H2, IH; auto.
Qed.
Lemma sub_s_nil : forall s, has_subst s = false -> sub_s [] s = s.
Proof.
  intros s; induction s using stmt_ind2; intros Hs.
  - discriminate.
  - simpl. rewrite map_sub_b_nil; auto.
  - simpl in *. rewrite map_sub_b_nil, IHs; auto.
  - rewrite sub_s_switch. rewrite has_subst_switch in Hs. rewrite sub_id_nil. f_equal.
    apply map_cls_id. rewrite Forall_forall in *. intros c Hc. apply H; auto.
    eapply (existsb_false_In (fun c0 => has_subst (cl_body c0))); eauto.
  - rewrite sub_s_create. rewrite has_subst_create in Hs. apply orb_false_iff in Hs. destruct Hs as [Hs1 Hs2].
    rewrite IHs by auto. f_equal.
    + destruct env as [env|]; simpl; auto. rewrite map_sub_b_nil; auto.
    + apply map_cls_id. rewrite Forall_forall in *. intros c Hc. apply H; auto.
      eapply (existsb_false_In (fun c0 => has_subst (cl_body c0))); eauto.
  - simpl. rewrite map_sub_b_nil; auto.
  - simpl in *. rewrite IHs; auto.
  - simpl in *. rewrite IHs; auto.
  - simpl in *. rewrite IHs; auto.
  - simpl in *. apply orb_false_iff in Hs. destruct Hs. rewrite IHs1, IHs2; auto. destruct b; auto.
  - reflexivity.
Qed.

(* composition: first rho, then su *)
Definition compose (su rho : list (N * ident)) : list (N * ident) :=
  map (fun p => (fst p, sub_id su (snd p))) rho ++ su.

Lemma find_map_key : forall (su rho : list (N * ident)) n,
  find (fun p => N.eqb (fst p) n) (map (fun p => (fst p, sub_id su (snd p))) rho) =
  option_map (fun p => (fst p, sub_id su (snd p))) (find (fun p => N.eqb (fst p) n) rho).
Proof.
  induction rho as [|p rho IH]; intros n; simpl; auto.
  destruct (N.eqb (fst p) n); auto.
Qed.
Lemma find_app : forall {A} (f : A -> bool) a b,
  find f (a ++ b) = match find f a with Some x => Some x | None => find f b end.
Proof. induction a as [|x a IH]; intros; simpl; auto. destruct (f x); auto. Qed.

Lemma sub_id_compose : forall su rho x, sub_id su (sub_id rho x) = sub_id (compose su rho) x.
Proof.
  intros su rho x. unfold sub_id at 2 3, compose. rewrite find_app, find_map_key.
  destruct (find (fun p => N.eqb (fst p) (idn x)) rho) as [p|]; simpl; auto.
Qed.
Lemma sub_b_compose : forall su rho b, sub_b su (sub_b rho b) = sub_b (compose su rho) b.
Proof. intros; unfold sub_b; simpl. rewrite sub_id_compose; auto. Qed.
Lemma map_sub_b_compose : forall su rho c, map (sub_b su) (map (sub_b rho) c) = map (sub_b (compose su rho)) c.
Proof. intros; rewrite map_map. apply map_ext. intros; apply sub_b_compose. Qed.

Lemma map_cls_compose : forall (f g h : stmt -> stmt) (cls : list clause),
  Forall (fun c => f (g (cl_body c)) = h (cl_body c)) cls ->
  map (fun c => (cl_xtor c, cl_ctx c, f (cl_body c))) (map (fun c => (cl_xtor c, cl_ctx c, g (cl_body c))) cls) =
  map (fun c => (cl_xtor c, cl_ctx c, h (cl_body c))) cls.
Proof.
  induction cls as [|[[x cc] b] r IH]; intros H; simpl; auto. inversion H; subst.
  unfold cl_xtor, cl_ctx, cl_body in *; simpl in *. rewrite H2, IH; auto.
Qed.

Lemma sub_s_compose : forall su rho s, has_subst s = false ->
  sub_s su (sub_s rho s) = sub_s (compose su rho) s.
Proof.
  intros su rho s; induction s using stmt_ind2; intros Hs.
  - discriminate.
  - simpl. rewrite map_sub_b_compose; auto.
  - simpl in *. rewrite map_sub_b_compose, IHs; auto.
  - rewrite !sub_s_switch. rewrite has_subst_switch in Hs. rewrite sub_id_compose. f_equal.
    apply map_cls_compose. rewrite Forall_forall in *. intros c Hc. apply H; auto.
    eapply (existsb_false_In (fun c0 => has_subst (cl_body c0))); eauto.
  - rewrite !sub_s_create. rewrite has_subst_create in Hs. apply orb_false_iff in Hs. destruct Hs as [Hs1 Hs2].
    rewrite IHs by auto. f_equal.
    + destruct env as [env|]; simpl; auto. rewrite map_sub_b_compose; auto.
    + apply map_cls_compose. rewrite Forall_forall in *. intros c Hc. apply H; auto.
      eapply (existsb_false_In (fun c0 => has_subst (cl_body c0))); eauto.
  - simpl. rewrite sub_id_compose, map_sub_b_compose; auto.
  - simpl in *. rewrite IHs; auto.
  - simpl in *. rewrite !sub_id_compose, IHs; auto.
  - simpl in *. rewrite sub_id_compose, IHs; auto.
  - simpl in *. apply orb_false_iff in Hs. destruct Hs. rewrite sub_id_compose, IHs1, IHs2; auto.
    destruct b; simpl; auto. rewrite sub_id_compose; auto.
  - simpl. rewrite sub_id_compose; auto.
Qed.

Lemma compose_dom : forall su rho, map fst (compose su rho) = map fst rho ++ map fst su.
Proof. intros; unfold compose. rewrite map_app, map_map. simpl. auto. Qed.
Lemma sub_n_compose : forall su rho n, sub_n (compose su rho) n = sub_n su (sub_n rho n).
Proof.
  intros su rho n.
  pose proof (sub_id_compose su rho ("x"%string, n)) as H.
  apply (f_equal idn) in H. rewrite !sub_id_n in H. simpl in H. auto.
Qed.
Lemma compose_range : forall su rho x,
  In x (map (fun p : N * ident => idn (snd p)) (compose su rho)) ->
  In x (map (fun p : N * ident => idn (snd p)) rho) \/ In x (map (fun p : N * ident => idn (snd p)) su).
Proof.
  intros su rho x H. unfold compose in H. rewrite map_app in H. apply in_app_or in H.
  destruct H as [H|H]; auto.
  rewrite map_map in H. simpl in H. apply in_map_iff in H. destruct H as [p [H1 H2]].
  rewrite sub_id_n in H1. destruct (sub_n_range su (idn (snd p))) as [E|E].
  - left. apply in_map_iff. exists p. split; auto. congruence.
  - right. rewrite H1 in E. auto.
Qed.

Definition untouched (rho : list (N * ident)) (xs : list N) : Prop :=
  forall x, In x xs -> ~ In x (map fst rho) /\ ~ In x (map (fun p => idn (snd p)) rho).

Lemma ids_sub_b : forall rho c, ids (map (sub_b rho) c) = map (sub_n rho) (ids c).
Proof.
  intros; unfold ids. rewrite !map_map. apply map_ext. intros b. unfold sub_b; simpl. apply sub_id_n.
Qed.
Lemma sub_n_untouched_ne : forall rho x y, ~ In y (map fst rho) -> ~ In y (map (fun p => idn (snd p)) rho) ->
  x <> y -> sub_n rho x <> y.
Proof.
  intros rho x y H1 H2 Hne E. destruct (sub_n_range rho x) as [H|H]; [congruence|]. rewrite E in H. auto.
Qed.

Lemma sub_n_untouched_notin : forall rho xs x, untouched rho xs -> ~ In x xs -> ~ In (sub_n rho x) xs.
Proof.
  intros rho xs x Hu Hn Hin. destruct (Hu _ Hin) as [Y1 Y2].
  destruct (N.eq_dec x (sub_n rho x)) as [E|E]; [rewrite <- E in Hin; auto|].
  apply (sub_n_untouched_ne rho x (sub_n rho x) Y1 Y2); auto.
Qed.

Lemma fv_sub : forall rho s x, has_subst s = false -> untouched rho (binders s) ->
  In x (fv s) -> In (sub_n rho x) (fv (sub_s rho s)).
Proof.
  intros rho s; induction s using stmt_ind2; intros x Hs Hu Hx.
  - discriminate.
  - simpl in *. apply union_In in Hx. destruct Hx as [Hx|[]]. apply union_In. left.
    rewrite ids_sub_b. apply in_map; auto.
  - simpl in *. apply union_In in Hx. apply union_In. destruct Hx as [Hx|Hx].
    + left. rewrite ids_sub_b. apply in_map; auto.
    + right. apply remove_In in Hx. destruct Hx as [Hx Hne]. apply remove_In. split.
      * apply IHs; auto. intros y Hy. apply Hu. simpl; auto.
      * apply sub_n_untouched_ne; auto; apply Hu; simpl; auto.
  - rewrite sub_s_switch. rewrite fv_switch in *. rewrite has_subst_switch in Hs. rewrite binders_switch in Hu.
    apply add_In in Hx. apply add_In. destruct Hx as [->|Hx]; [left; rewrite sub_id_n; auto|]. right.
    apply fv_clauses_In in Hx. destruct Hx as [cl [C1 [C2 C3]]].
    apply fv_clauses_In. exists (cl_xtor cl, cl_ctx cl, sub_s rho (cl_body cl)).
    split; [apply in_map_iff; exists cl; auto|].
    unfold cl_body at 1, cl_ctx at 1; simpl. split.
    + rewrite Forall_forall in H. apply H; auto.
      * eapply (existsb_false_In (fun c0 => has_subst (cl_body c0))); eauto.
      * intros y Hy. apply Hu. eapply binders_cls_In; eauto. apply in_or_app; auto.
    + apply sub_n_untouched_notin; [|exact C3].
      intros y Hy. apply Hu. eapply binders_cls_In; eauto. apply in_or_app; auto.
  - rewrite sub_s_create. rewrite fv_create in *. rewrite has_subst_create in Hs.
    apply orb_false_iff in Hs. destruct Hs as [Hs1 Hs2]. rewrite binders_create in Hu.
    apply union_In in Hx. apply union_In. destruct Hx as [Hx|Hx].
    + left. apply fv_clauses_In in Hx. destruct Hx as [cl [C1 [C2 C3]]].
      apply fv_clauses_In. exists (cl_xtor cl, cl_ctx cl, sub_s rho (cl_body cl)).
      split; [apply in_map_iff; exists cl; auto|].
      unfold cl_body at 1, cl_ctx at 1; simpl.
      assert (Hy : untouched rho (ids (cl_ctx cl) ++ binders (cl_body cl))).
      { intros y Hy. apply Hu. right. apply in_or_app. left. eapply binders_cls_In; eauto. }
      split.
      * rewrite Forall_forall in H. apply H; auto.
        -- eapply (existsb_false_In (fun c0 => has_subst (cl_body c0))); eauto.
        -- intros y Hy'. apply Hy. apply in_or_app; auto.
      * apply sub_n_untouched_notin; [|exact C3]. intros y Hy'. apply Hy. apply in_or_app; auto.
    + right. apply remove_In in Hx. destruct Hx as [Hx Hne]. apply remove_In. split.
      * apply IHs; auto. intros y Hy. apply Hu. right. apply in_or_app; auto.
      * apply sub_n_untouched_ne; auto; apply Hu; simpl; auto.
  - simpl in *. apply add_In in Hx. apply add_In. destruct Hx as [->|Hx]; [left; rewrite sub_id_n; auto|].
    right. apply union_In in Hx. destruct Hx as [Hx|[]]. apply union_In. left.
    rewrite ids_sub_b. apply in_map; auto.
  - simpl in *. apply remove_In in Hx. destruct Hx as [Hx Hne]. apply remove_In. split.
    + apply IHs; auto. intros y Hy. apply Hu. simpl; auto.
    + apply sub_n_untouched_ne; auto; apply Hu; simpl; auto.
  - simpl in *. rewrite !sub_id_n. apply add_In in Hx. apply add_In. destruct Hx as [->|Hx]; auto.
    right. apply add_In in Hx. apply add_In. destruct Hx as [->|Hx]; auto.
    right. apply remove_In in Hx. destruct Hx as [Hx Hne]. apply remove_In. split.
    + apply IHs; auto. intros y Hy. apply Hu. simpl; auto.
    + apply sub_n_untouched_ne; auto; apply Hu; simpl; auto.
  - simpl in *. rewrite sub_id_n. apply add_In in Hx. apply add_In. destruct Hx as [->|Hx]; auto.
  - simpl in Hs, Hu. apply orb_false_iff in Hs. destruct Hs as [Hs1 Hs2].
    assert (U1 : untouched rho (binders s1)) by (intros y Hy; apply Hu; apply in_or_app; auto).
    assert (U2 : untouched rho (binders s2)) by (intros y Hy; apply Hu; apply in_or_app; auto).
    simpl in Hx. simpl. destruct b as [b|]; simpl; rewrite ?sub_id_n.
    + apply add_In in Hx. apply add_In. destruct Hx as [->|Hx]; auto. right.
      apply add_In in Hx. apply add_In. destruct Hx as [->|Hx]; auto. right.
      apply union_In in Hx. apply union_In. destruct Hx; auto.
    + apply add_In in Hx. apply add_In. destruct Hx as [->|Hx]; auto. right.
      apply union_In in Hx. apply union_In. destruct Hx; auto.
  - simpl in *. destruct Hx as [<-|[]]. left. rewrite sub_id_n; auto.
Qed.

Lemma ids_cons_other : forall (c : ctx) b x, In x (ids (b :: c)) -> x <> idn (bvar b) -> In x (ids c).
Proof. intros c b x [E|H] Hne; [congruence|exact H]. Qed.

Lemma ax_check_fv : forall S s c x, ax_check S c s = true -> In x (fv s) -> In x (ids c).
Proof.
  intros S s; induction s using stmt_ind2; intros c x Hc Hx.
  - discriminate.
  - simpl in *. destruct (lookup_label S l); try discriminate. btrue.
    apply union_In in Hx. destruct Hx as [Hx|[]]. eapply has_b_all_In_ids; eauto.
  - simpl in *. btrue. apply union_In in Hx. destruct Hx as [Hx|Hx].
    + eapply has_b_all_In_ids; eauto.
    + apply remove_In in Hx. destruct Hx as [Hx Hne]. eapply ids_cons_other; [eapply IHs; eassumption|exact Hne].
  - rewrite ax_check_switch in Hc. rewrite fv_switch in Hx. btrue.
    apply add_In in Hx. destruct Hx as [->|Hx]; [eapply has_In_ids; eassumption|].
    apply fv_clauses_In in Hx. destruct Hx as [cl [C1 [C2 C3]]].
    match goal with Hl : ax_clauses _ _ _ = true |- _ => unfold ax_clauses in Hl; rewrite forallb_forall in Hl;
      specialize (Hl _ C1) end.
    rewrite Forall_forall in H. specialize (H _ C1 _ _ H1 C2).
    rewrite ids_app in H. apply in_app_or in H. tauto.
  - rewrite ax_check_create in Hc. rewrite fv_create in Hx. btrue.
    apply union_In in Hx. destruct Hx as [Hx|Hx].
    + apply fv_clauses_In in Hx. destruct Hx as [cl [C1 [C2 C3]]].
      match goal with Hl : ax_clauses _ _ _ = true |- _ => unfold ax_clauses in Hl; rewrite forallb_forall in Hl;
        specialize (Hl _ C1) end.
      rewrite Forall_forall in H. specialize (H _ C1 _ _ H2 C2).
      rewrite ids_app in H. apply in_app_or in H. tauto.
    + apply remove_In in Hx. destruct Hx as [Hx Hne]. eapply ids_cons_other; [eapply IHs; eassumption|exact Hne].
  - simpl in *. btrue. apply add_In in Hx. destruct Hx as [->|Hx]; [eapply has_In_ids; eassumption|].
    apply union_In in Hx. destruct Hx as [Hx|[]]. eapply has_b_all_In_ids; eauto.
  - simpl in *. apply remove_In in Hx. destruct Hx as [Hx Hne].
    eapply ids_cons_other; [eapply IHs; eassumption|exact Hne].
  - simpl in *. btrue.
    apply add_In in Hx. destruct Hx as [->|Hx]; [now apply has_ext_In_ids|].
    apply add_In in Hx. destruct Hx as [->|Hx]; [now apply has_ext_In_ids|].
    apply remove_In in Hx. destruct Hx as [Hx Hne]. eapply ids_cons_other; [eapply IHs; eassumption|exact Hne].
  - simpl in *. btrue.
    apply add_In in Hx. destruct Hx as [->|Hx]; [now apply has_ext_In_ids|]. eapply IHs; eassumption.
  - simpl in Hc. btrue. simpl in Hx.
    assert (Hbr : In x (add (idn a) (union (fv s2) (fv s1))) -> In x (ids c)).
    { intros Hu. apply add_In in Hu. destruct Hu as [->|Hu]; [now apply has_ext_In_ids|].
      apply union_In in Hu. destruct Hu; [eapply IHs2|eapply IHs1]; eassumption. }
    destruct b as [b|]; [|exact (Hbr Hx)].
    apply add_In in Hx. destruct Hx as [->|Hx]; [now apply has_ext_In_ids|exact (Hbr Hx)].
  - simpl in *. destruct Hx as [<-|[]]. now apply has_ext_In_ids.
Qed.
