(* C06, forward simulation of the x86-64 code generator, part 1: the state relation between a
   configuration of the linear AxCut machine and a state of Sem/X86Sem.v (integer fragment: every
   variable is `ext i64`, its value lives in the SECOND temporary of its position), the footprint of
   straight-line code (what code that never names rsp as a destination and stores only into the spill
   area leaves alone), and execution inside an image up to a final observation. *)
From Coq Require Import List ZArith NArith String Bool Lia FMapPositive.
From SCC Require Import Base.Sexp Lang.AxSyn Sem.AxSem Model.ParMoves Model.Backend Model.X86 Sem.X86Sem Sem.X86Wf
     Generated.Constants Proof.X86State Proof.X86Sel Proof.X86Exec Proof.X86ParMoves Proof.SubstGraph Proof.X86Subst.
From SCC Require Export Proof.SimFrag.
Import ListNotations.
Open Scope Z_scope.
Open Scope list_scope.
(* the definitions of Proof/SimFrag.v under this module's name, for qualified uses *)
Notation is_int_binding := SimFrag.is_int_binding (only parsing).
Notation ctx_int := SimFrag.ctx_int (only parsing).
Notation env_ctx_nth := SimFrag.env_ctx_nth (only parsing).

(* everything but registers, flags and spill slots: heap, output, the stack outside the spill
   area (in particular the words above it, where the prologue saved the callee-saved registers) *)
Definition frame_eq (s s' : xstate) (sp : Z) : Prop :=
  heap s' = heap s /\ out s' = out s /\
  (forall k, (forall p, slot_ok p -> k <> key (slot_addr sp p)) -> PM.find k (stack s') = PM.find k (stack s)).
Lemma frame_eq_refl s sp : frame_eq s s sp.
Proof. repeat split; auto. Qed.
Lemma frame_eq_trans s1 s2 s3 sp : frame_eq s1 s2 sp -> frame_eq s2 s3 sp -> frame_eq s1 s3 sp.
Proof.
  intros (A1 & C1 & E1) (A2 & C2 & E2). repeat split; try congruence.
  intros k Hk. rewrite E2, E1; auto.
Qed.
Lemma same_frame_eq s s' sp : same_frame s s' sp -> frame_eq s s' sp.
Proof. intros (A & B & _ & _ & E). repeat split; auto. Qed.
Lemma frame_eq_rset s sp r v : frame_eq s (rset s r v) sp.
Proof. repeat split; auto. Qed.
Lemma frame_eq_set_flags s sp f : frame_eq s (set_flags s f) sp.
Proof. repeat split; auto. Qed.
Lemma frame_eq_sset s sp p v : slot_ok p -> frame_eq s (sset s sp p v) sp.
Proof. intros P. apply same_frame_eq. now apply same_frame_sset. Qed.

(* an offset from rsp that addresses a spill slot *)
Definition slot_off (i : Z) : bool := (0 <=? i) && (i <? SPILL_SPACE) && (i mod 8 =? 0).
Lemma slot_off_inv i : slot_off i = true -> exists p, slot_ok p /\ i = stack_offset p.
Proof.
  unfold slot_off. rewrite !andb_true_iff, Z.leb_le, Z.ltb_lt, Z.eqb_eq. intros [[A B] C].
  change SPILL_SPACE with 2048 in *.
  exists (Z.to_N ((2048 - i) / 8 - 1)). unfold slot_ok, stack_offset. change SPILL_NUM with 256%N. change SPILL_SPACE with 2048.
  assert (E : i = 8 * (i / 8)) by (rewrite (Z.div_mod i 8) at 1 by lia; lia).
  assert (Q : (2048 - i) / 8 = 256 - i / 8).
  { rewrite E at 1. replace (2048 - 8 * (i / 8)) with ((256 - i / 8) * 8) by lia. apply Z.div_mul. lia. }
  rewrite Q. assert (0 <= i / 8 < 256) by (split; [apply Z.div_pos; lia|apply Z.div_lt_upper_bound; lia]).
  split; [lia|]. rewrite Z2N.id by lia. lia.
Qed.
Lemma slot_off_stack_offset p : slot_ok p -> slot_off (stack_offset p) = true.
Proof.
  unfold slot_ok, slot_off, stack_offset. change SPILL_NUM with 256%N. change SPILL_SPACE with 2048. intros P.
  rewrite !andb_true_iff, Z.leb_le, Z.ltb_lt, Z.eqb_eq. repeat split; try lia.
  replace (2048 - 8 * (Z.of_N p + 1)) with ((255 - Z.of_N p) * 8) by lia. apply Z.mod_mul. lia.
Qed.

(* instructions that do not name rsp as a destination, store only into the spill area and neither push,
   pop, call nor return *)
Definition nz (a : reg) : bool := negb (N.eqb a 0).
Definition local_instr (c : xcode) : bool :=
  match c with
  | ADD a _ | ADDRM a _ _ | ADDI a _ | SUB a _ | SUBRM a _ _ | SUBI a _ | IMUL a _ | IMULRM a _ _
  | MOV a _ | MOVL a _ _ | MOVI a _ | LEAL a _ => nz a
  | ADDMR b i _ | SUBMR b i _ | IMULMR b i _ | MOVS _ b i | ADDIM b i _ | MOVIM b i _ => N.eqb b 0 && slot_off i
  | PUSH _ | POP _ | CALL _ | RET => false
  | _ => true
  end.
Definition local_code (cs : list xcode) : bool := forallb local_instr cs.
Lemma local_code_app a b : local_code (a ++ b) = local_code a && local_code b.
Proof. apply forallb_app. Qed.

Definition sres (r : step_res) : option xstate :=
  match r with Next s | Jump s _ | Undefd _ s => Some s | _ => None end.

Lemma frame_ok_rset' s sp r v : nz r = true -> frame_ok s sp -> frame_ok (rset s r v) sp.
Proof. unfold nz. intros H. apply frame_ok_rset. destruct (N.eqb_spec r 0); [discriminate|assumption]. Qed.

(* case analysis on every `match` / `if` the step function goes through before it returns a state *)
Ltac crunch :=
  repeat match goal with
         | |- sres (match ?x with _ => _ end) = _ -> _ => destruct x eqn:?; cbn [sres]; try discriminate
         | |- sres (if ?x then _ else _) = _ -> _ => destruct x eqn:?; cbn [sres]; try discriminate
         end.
Lemma arith_rr_local f s a b sp s' :
  nz a = true -> frame_ok s sp -> sres (arith_rr f s a b) = Some s' -> frame_ok s' sp /\ frame_eq s s' sp.
Proof.
  intros NZ F. unfold arith_rr, need. destruct (rget s a); [|discriminate]. destruct (rget s b); [|discriminate].
  cbn [sres]. intros E; inversion E; subst. split; [apply frame_ok_set_flags, frame_ok_rset'; auto|repeat split; auto].
Qed.
Lemma arith_rm_local f s a b i sp s' :
  nz a = true -> frame_ok s sp -> sres (arith_rm f s a b i) = Some s' -> frame_ok s' sp /\ frame_eq s s' sp.
Proof.
  intros NZ F. unfold arith_rm, ea, withm; unfold need. destruct (rget s a); [|discriminate].
  crunch.
  all: intros E; inversion E; subst; (split; [apply frame_ok_set_flags, frame_ok_rset'; auto|repeat split; auto]).
Qed.
Lemma ea_slot s sp i k : frame_ok s sp -> slot_off i = true -> exists p, slot_ok p /\ ea s 0%N i k = k (slot_addr sp p).
Proof.
  intros F O. destruct (slot_off_inv i O) as (p & P & ->). exists p. split; [exact P|].
  apply (ea_stack s sp p k F P).
Qed.
Lemma arith_mr_local f s i b sp s' :
  slot_off i = true -> frame_ok s sp -> sres (arith_mr f s 0%N i b) = Some s' -> frame_ok s' sp /\ frame_eq s s' sp.
Proof.
  intros O F. unfold arith_mr. destruct (ea_slot s sp i
    (fun ad => withm (mload s ad) s (fun v => need v "undef-operand" (fun x =>
       need (rget s b) "undef-operand" (fun y => withm (mstore s ad (Some (wrap (f x y)))) s (fun s'0 =>
         Next (set_flags s'0 None))) s) s)) F O) as (p & P & ->).
  unfold withm, need. rewrite mload_slot by auto. destruct (sget s sp p); [|discriminate].
  destruct (rget s b); [|discriminate]. rewrite mstore_slot by auto. cbn [sres]. intros E; inversion E; subst.
  split; [apply frame_ok_set_flags, frame_ok_sset; auto|].
  eapply frame_eq_trans; [apply frame_eq_sset; exact P|apply frame_eq_set_flags].
Qed.

Ltac fin F :=
  let E := fresh "E" in
  cbn [sres]; intros E; inversion E; subst;
  (split; [repeat first [exact F | apply frame_ok_set_flags | apply frame_ok_sset | apply frame_ok_rset'; [assumption|]
                         | apply frame_ok_rset; [discriminate|] ]
          | repeat first [ apply frame_eq_refl | apply frame_eq_rset | apply frame_eq_set_flags | (apply frame_eq_sset; assumption)
                         | (eapply frame_eq_trans; [apply frame_eq_sset; eassumption|])
                         | (eapply frame_eq_trans; [apply frame_eq_rset|])
                         | (eapply frame_eq_trans; [apply frame_eq_set_flags|]) ] ]).

Lemma step_local im c s sp s' :
  local_instr c = true -> frame_ok s sp -> sres (step im c s) = Some s' -> frame_ok s' sp /\ frame_eq s s' sp.
Proof.
  intros L F.
  destruct c; cbn [local_instr] in L; try discriminate; cbn [step];
    try (apply andb_true_iff in L as [L0 L1]; apply N.eqb_eq in L0; subst).
  - now apply arith_rr_local.
  - now apply arith_rm_local.
  - now apply arith_mr_local.
  - unfold need. crunch. fin F.
  - destruct (fits32 j); [|discriminate].
    destruct (ea_slot s sp i (fun ad : Z =>
      withm (mload s ad) s (fun v : option Z => need v "undef-operand" (fun x : Z =>
        withm (mstore s ad (Some (wrap (x + j)))) s (fun s'0 : xstate => Next (set_flags s'0 None))) s)) F L1) as (p & P & ->).
    unfold withm, need. rewrite mload_slot by auto. destruct (sget s sp p); [|discriminate]. rewrite mstore_slot by auto. fin F.
  - now apply arith_rr_local.
  - now apply arith_rm_local.
  - now apply arith_mr_local.
  - unfold need. crunch. fin F.
  - now apply arith_rr_local.
  - now apply arith_rm_local.
  - now apply arith_mr_local.
  - unfold need, ea, withm; unfold need. crunch. all: fin F.
  - unfold need, ea, withm; unfold need. crunch. all: fin F.
  - unfold need, ea, withm; unfold need. crunch. all: fin F.
  - unfold need, goto_addr. crunch. fin F.
  - unfold goto_label. crunch. fin F.
  - unfold goto_label. crunch. fin F.
  - crunch. fin F.
  - fin F.
  - destruct (ea_slot s sp i (fun ad : Z => withm (mstore s ad (rget s a)) s Next) F L1) as (p & P & ->).
    unfold withm. rewrite mstore_slot by auto. fin F.
  - unfold need, ea, withm; unfold need. crunch. all: fin F.
  - fin F.
  - destruct (fits32 j); [|discriminate].
    destruct (ea_slot s sp i (fun ad : Z => withm (mstore s ad (Some j)) s Next) F L1) as (p & P & ->).
    unfold withm. rewrite mstore_slot by auto. fin F.
  - unfold need, ea, withm; unfold need. crunch. all: fin F.
  - unfold need, ea, withm; unfold need. crunch. all: fin F.
  - unfold need, ea, withm; unfold need. crunch. all: fin F.
  - unfold need, ea, withm; unfold need. crunch. all: fin F.
  - unfold need, ea, withm; unfold need. crunch. all: fin F.
  - unfold cond_jump, goto_label. crunch. all: fin F.
  - unfold cond_jump, goto_label. crunch. all: fin F.
  - unfold cond_jump, goto_label. crunch. all: fin F.
  - unfold cond_jump, goto_label. crunch. all: fin F.
  - unfold cond_jump, goto_label. crunch. all: fin F.
  - unfold cond_jump, goto_label. crunch. all: fin F.
  - fin F.
  - fin F.
  - fin F.
  - fin F.
  - fin F.
Qed.

Lemma exec_straight_local im cs : forall s sp s',
  local_code cs = true -> frame_ok s sp -> exec_straight im cs s = Some s' -> frame_ok s' sp /\ frame_eq s s' sp.
Proof.
  induction cs as [|c cs IH]; intros s sp s' L F E; cbn in *.
  - inversion E; subst. split; [exact F|apply frame_eq_refl].
  - apply andb_true_iff in L as [L0 L1]. destruct (step im c s) as [s1| | | |] eqn:St; try discriminate.
    destruct (step_local im c s sp s1 L0 F) as [F1 E1]; [now rewrite St|].
    destruct (IH s1 sp s' L1 F1 E) as [F2 E2]. split; [exact F2|eapply frame_eq_trans; eauto].
Qed.

Definition finishes (im : image) (pc : positive) (s : xstate) (o : obs) : Prop :=
  exists n sf, run_chunk n im pc s = Finished o sf.

Lemma exec_to_finishes im pc s pc' s' o : exec_to im pc s pc' s' -> finishes im pc' s' o -> finishes im pc s o.
Proof.
  induction 1 as [pc s|pc c s s1 pc' s' Hc Hs _ IH|pc c s s1 i pc' s' Hc Hs _ IH]; intros Fin; auto.
  - destruct (IH Fin) as (n & sf & Hn). exists (S n), sf. cbn [run_chunk]. now rewrite Hc, Hs.
  - destruct (IH Fin) as (n & sf & Hn). exists (S n), sf. cbn [run_chunk]. now rewrite Hc, Hs.
Qed.
Lemma finishes_run im pc s o : finishes im pc s o -> exists outer inner, fst (run outer inner im pc s) = o.
Proof. intros (n & sf & Hn). exists 1%nat, n. cbn [run]. now rewrite Hn. Qed.
Lemma finishes_undef im pc c s w s' :
  PM.find pc (code im) = Some c -> step im c s = Undefd w s' -> finishes im pc s (finish (out s') (OUndef w)).
Proof. intros Hc Hs. exists 1%nat, s'. cbn [run_chunk]. now rewrite Hc, Hs. Qed.
Lemma finishes_done im pc c s s' :
  PM.find pc (code im) = Some c -> step im c s = Done s' -> finishes im pc s (finish (out s') (final_check s')).
Proof. intros Hc Hs. exists 1%nat, s'. cbn [run_chunk]. now rewrite Hc, Hs. Qed.

(* jumping to a label that sits in placed code.  Only labels that do not start with '#' are required
   to resolve to their own position: these are the labels whose uniqueness the assembler-level check
   `asm_wf` (Sem/X86Wf.v) establishes on the real output. *)
Definition labels_at_nh (im : image) (pc : positive) (cs : list xcode) : Prop :=
  forall j l, nth_error cs j = Some (LAB l) -> is_hash_label l = false -> find_label (labels im) l = Some (padd pc j).
Lemma labels_at_nh_app im pc a b :
  labels_at_nh im pc (a ++ b) <-> labels_at_nh im pc a /\ labels_at_nh im (padd pc (List.length a)) b.
Proof.
  unfold labels_at_nh. split.
  - intros H. split.
    + intros j c Hj. apply H. rewrite nth_error_app1; auto. apply nth_error_Some. congruence.
    + intros j c Hj. rewrite <- padd_add. apply H. rewrite nth_error_app2 by lia.
      replace (List.length a + j - List.length a)%nat with j by lia. exact Hj.
  - intros [Ha Hb] j c Hj. destruct (Nat.lt_ge_cases j (List.length a)) as [L|L].
    + apply Ha. now rewrite nth_error_app1 in Hj.
    + rewrite nth_error_app2 in Hj by lia. intros NH. apply Hb in Hj; [|exact NH]. rewrite <- padd_add in Hj.
      now replace (List.length a + (j - List.length a))%nat with j in Hj by lia.
Qed.
Lemma labels_at_weaken im pc cs : labels_at im pc cs -> labels_at_nh im pc cs.
Proof. intros H j l Hj _. exact (H j l Hj). Qed.
Lemma goto_label_at im pc cs j l s :
  labels_at_nh im pc cs -> nth_error cs j = Some (LAB l) -> is_hash_label l = false -> goto_label im s l = Jump s (padd pc j).
Proof. intros LA H NH. unfold goto_label. now rewrite (LA j l H NH). Qed.
Lemma code_at_nth im pc cs j c : code_at im pc cs -> nth_error cs j = Some c -> PM.find (padd pc j) (code im) = Some c.
Proof. intros CA H. exact (CA j c H). Qed.



(* a variable temporary is usable by every selection lemma *)
Lemma xtpos_ok n i t : xtpos n i = Ok t -> loc_ok t /\ t <> XR TEMP /\ t <> XS SPILL_TEMP /\ t <> XR FREE /\ t <> XR HEAP.
Proof. intros H. destruct (xtpos_var_temp n i t H) as ((A & B & C) & D & E). auto. Qed.
Lemma xtpos_snd_not_rax i t : xtpos Snd i = Ok t -> t <> XR RETURN1.
Proof.
  unfold tpos, x86_backend, x86_backend_with, b_temporary_from_position, temporary_from_position, tnum_n.
  change RESERVED with 4%N. change REGISTER_NUM with 16%N. change RETURN1 with 4%N.
  destruct (N.ltb_spec (2 * N.of_nat i + 1 + 4) 16).
  - intros E X. assert (Q : (2 * N.of_nat i + 1 + 4 = 4)%N) by congruence. lia.
  - destruct (N.ltb _ _); intros E; inversion E; subst. discriminate.
Qed.
Lemma xtpos_snd_rdx i t : xtpos Snd i = Ok t -> t = XR RETURN2 -> i = O.
Proof.
  unfold tpos, x86_backend, x86_backend_with, b_temporary_from_position, temporary_from_position, tnum_n.
  change RESERVED with 4%N. change REGISTER_NUM with 16%N. change RETURN2 with 5%N.
  destruct (N.ltb_spec (2 * N.of_nat i + 1 + 4) 16).
  - intros E X. assert (Q : (2 * N.of_nat i + 1 + 4 = 5)%N) by congruence. lia.
  - destruct (N.ltb _ _); intros E; inversion E; subst. discriminate.
Qed.
Lemma vt_of_nth c c' i b :
  NoDup (ids (c ++ c')) -> nth_error c i = Some b ->
  variable_temporary x86_backend Snd (c ++ c') (idn (bvar b)) = xtpos Snd i.
Proof.
  intros ND H. apply vt_tpos; auto. rewrite nth_error_app1; auto. apply nth_error_Some. congruence.
Qed.
Lemma vt_of_nth0 c i b :
  NoDup (ids c) -> nth_error c i = Some b -> variable_temporary x86_backend Snd c (idn (bvar b)) = xtpos Snd i.
Proof. intros ND H. now apply vt_tpos. Qed.

Section Rel.
(* what a closure's code pointer points to: (address, type name, clauses); fixed by the program-level
   development (Proof/X86SimProg.v); the statement-level lemmas never look inside *)
Variable CL : Z -> ident -> list clause -> Prop.

(* how the value of position i is represented:
   - an integer (binding `ext i64`): the SECOND temporary of the position holds it;
   - a closure without captured variables (binding `cns T`): the first temporary holds the null block
     pointer, the second one the address of the closure's jump table / single clause *)
Inductive vrep (s : xstate) (sp : Z) (i : nat) : binding -> value -> Prop :=
| vrep_int b z t :
    bchi b = Ext -> bty b = I64 -> xtpos Snd i = Ok t -> lget s sp t = Some z -> vrep s sp i b (VInt z)
| vrep_clo b tn cls a t1 t2 :
    bchi b = Cns -> bty b = Decl tn ->
    xtpos Fst i = Ok t1 -> xtpos Snd i = Ok t2 -> lget s sp t1 = Some 0 -> lget s sp t2 = Some a ->
    CL a tn cls -> vrep s sp i b (VClo tn cls []).

Record rel (c : ctx) (e : env) (s : xstate) (sp : Z) : Prop := mk_rel {
  rel_frame : frame_ok s sp;
  rel_align : sp mod 16 = 8;                 (* the body runs with rsp = 8 mod 16 *)
  rel_room : STACK_LIMIT + 128 <= sp;        (* room for the pushes around a print call *)
  rel_free : exists f, rget s FREE = Some f; (* the deferred-free list register is defined *)
  rel_ids : env_ids e = ids c;
  rel_nodup : NoDup (ids c);
  rel_vals : forall i x v, nth_error e i = Some (x, v) -> exists b, nth_error c i = Some b /\ vrep s sp i b v
}.

Lemma rel_length c e s sp : rel c e s sp -> List.length e = List.length c.
Proof.
  intros R. pose proof (rel_ids _ _ _ _ R) as H. apply (f_equal (@List.length N)) in H.
  unfold env_ids, ids in H. now rewrite !map_length in H.
Qed.

Lemma vrep_keep s s' sp i b v :
  (forall n t, allowed n b -> xtpos n i = Ok t -> lget s' sp t = lget s sp t) -> vrep s sp i b v -> vrep s' sp i b v.
Proof.
  intros K V. destruct V as [b z t A B T L|b tn cls a t1 t2 A B T1 T2 L1 L2 C].
  - eapply vrep_int; eauto. rewrite (K Snd _ (or_introl eq_refl) T). exact L.
  - assert (AL : forall n, allowed n b) by (intros n; right; congruence).
    eapply vrep_clo; eauto; [now rewrite (K _ _ (AL Fst) T1)|now rewrite (K _ _ (AL Snd) T2)].
Qed.

(* reading an operand: the machine's lookup and the generator's variable_temporary meet *)
Lemma rel_lookup c e s sp a x :
  rel c e s sp -> lookup_int e a = Some x ->
  exists i b t, nth_error c i = Some b /\ idn (bvar b) = idn a /\ xtpos Snd i = Ok t /\ lget s sp t = Some x.
Proof.
  intros R H. unfold lookup_int, lookup_id in H. destruct (AxSem.lookup e (idn a)) as [[z| |]|] eqn:L; try discriminate.
  inversion H; subst z. destruct (lookup_nth e (idn a) (VInt x) L) as (i & y & Hn & Hy).
  destruct (env_ctx_nth c e i y _ (rel_ids _ _ _ _ R) Hn) as (b & Hb & Eb).
  destruct (rel_vals _ _ _ _ R i y _ Hn) as (b' & Hb' & V). assert (b' = b) by congruence. subst b'.
  inversion V; subst. exists i, b, t. repeat split; auto. congruence.
Qed.

(* in the form the statement lemmas use it: the temporary the generator chose for an integer operand is the
   Snd temporary of a position of the context and holds the operand's value *)
Lemma rel_operand_app c c' e s sp a x t :
  rel c e s sp -> NoDup (ids (c ++ c')) -> lookup_int e a = Some x ->
  variable_temporary x86_backend Snd (c ++ c') (idn a) = Ok t ->
  exists i, (i < List.length c)%nat /\ xtpos Snd i = Ok t /\ lget s sp t = Some x.
Proof.
  intros R ND LA TA. destruct (rel_lookup c e s sp a x R LA) as (i & b & t' & Hi & Ei & Ti & Vi).
  rewrite <- Ei, (vt_of_nth c c' i b ND Hi), Ti in TA. injection TA as <-.
  exists i. split; [apply nth_error_Some; congruence|auto].
Qed.
Lemma rel_operand c e s sp a x t :
  rel c e s sp -> lookup_int e a = Some x -> variable_temporary x86_backend Snd c (idn a) = Ok t ->
  exists i, (i < List.length c)%nat /\ xtpos Snd i = Ok t /\ lget s sp t = Some x.
Proof.
  intros R LA TA. apply (rel_operand_app c [] e s sp a x t R); rewrite ?app_nil_r; auto. exact (rel_nodup _ _ _ _ R).
Qed.

(* a state change that keeps every live variable location (and rbp) keeps the relation; the first
   temporary of an integer variable is not live *)
Lemma rel_keep c e s s' sp :
  rel c e s sp -> frame_ok s' sp -> rget s' FREE = rget s FREE ->
  (forall i b n t, nth_error c i = Some b -> allowed n b -> xtpos n i = Ok t -> lget s' sp t = lget s sp t) ->
  rel c e s' sp.
Proof.
  intros R F FR K. destruct R as [F0 Al Ro Fr Ids ND Vals]. split; auto.
  - now rewrite FR.
  - intros i x v Hn. destruct (Vals i x v Hn) as (b & Hb & V). exists b. split; [exact Hb|].
    eapply vrep_keep; [|exact V]. intros n t AL T. apply (K i b n t); auto.
Qed.

Lemma rel_push c e s s' sp v z t :
  rel c e s sp -> NoDup (ids (c ++ [mkb v Ext I64])) ->
  xtpos Snd (List.length c) = Ok t -> lget s' sp t = Some z -> preserved s s' sp t ->
  rel (c ++ [mkb v Ext I64]) (e ++ [(v, VInt z)]) s' sp.
Proof.
  intros R ND Ht Hv (PR & _ & _ & F').
  pose proof (rel_length _ _ _ _ R) as LEN. destruct R as [F0 Al Ro Fr Ids ND0 Vals]. split; auto.
  - destruct Fr as (f & Fr). exists f. rewrite <- Fr. apply (PR (XR FREE)); [cbn; discriminate| |discriminate].
    intros E; subst t. destruct (xtpos_ok _ _ _ Ht) as (_ & _ & _ & N & _). congruence.
  - unfold env_ids, ids in *. rewrite !map_app, Ids. reflexivity.
  - intros i x w Hn. destruct (Nat.lt_ge_cases i (List.length e)) as [L|L].
    + rewrite nth_error_app1 in Hn by exact L. destruct (Vals i x w Hn) as (b & Hb & V).
      exists b. split; [rewrite nth_error_app1 by lia; exact Hb|].
      eapply vrep_keep; [|exact V]. intros n t0 _ T0.
      destruct (xtpos_ok _ _ _ T0) as (A & B & _). apply PR; auto.
      intros E; subst t0. destruct (tpos_inj x86_backend x86_backend_ok _ _ _ _ _ T0 Ht) as [_ E]. lia.
    + rewrite nth_error_app2 in Hn by exact L. destruct (i - List.length e)%nat as [|k] eqn:K; cbn in Hn; [|destruct k; discriminate].
      inversion Hn; subst. exists (mkb x Ext I64). split.
      * rewrite nth_error_app2 by lia. replace (i - List.length c)%nat with O by lia. reflexivity.
      * eapply vrep_int; eauto. replace i with (List.length c) by lia. exact Ht.
Qed.
End Rel.
Arguments rel_frame {CL c e s sp}.
Arguments rel_align {CL c e s sp}.
Arguments rel_room {CL c e s sp}.
Arguments rel_free {CL c e s sp}.
Arguments rel_ids {CL c e s sp}.
Arguments rel_nodup {CL c e s sp}.
Arguments rel_vals {CL c e s sp}.
Arguments rel_length {CL c e s sp}.
