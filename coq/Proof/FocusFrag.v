(* C03, semantic preservation: a static (boolean) guard under which no run meets a kind
   clash ([clash_config], [sg_prog] of Model/FocusGuard.v).

   A clash needs a by-name producer value (PThunk / PDelay, or a mu at a codata cut) AND a by-value
   return continuation (KRet).  The guard [sg_* cod bn kr] (Model/FocusGuard.v) forbids syntactically
     bn = false : everything that creates a by-name value: a mu-abstraction annotated with a codata
                  type in an argument position (producer or consumer), a cut at a codata type whose
                  producer is a mu;
     kr = false : everything that creates a KRet: a producer mu-abstraction annotated with a
                  NON-codata type in an argument position.
   With bn && kr = false one of the two kinds of value never exists ([nc] is an invariant of the
   machine), hence no clash.  Well-typed programs that mix both are clash free as well
   (Proof/FocusTyped.v); the theorems with the explicit [clash_free] hypothesis cover both. *)
From Coq Require Import List ZArith NArith String Bool Lia.
From SCC Require Import Base.Sexp Lang.CoreSyn Sem.AxSem Sem.CoreSem Proof.FocusKont Proof.FocusSim Proof.FocusRun.
From SCC Require Import Model.FocusGuard.
Import ListNotations.
Open Scope list_scope.

Section Inv.
Variable ps : cprog.
Variables bn kr : bool.
Hypothesis Hflags : bn && kr = false.
Hypothesis Hprog : sg_prog bn kr ps = true.

Notation sgt := (sg_term (is_codata ps) bn kr).
Notation sga := (sg_arg (is_codata ps) bn kr).
Notation sgc := (sg_clause (is_codata ps) bn kr).
Notation sgs := (sg_stmt (is_codata ps) bn kr).
Notation aop := (arg_ok_prd (is_codata ps) bn kr).

(* the invariant: every piece of code held by a value ([nv]), an environment ([ne]), a machine
   continuation ([nm]) or a final action ([nf]) satisfies the guard.  [nv_thunk] and [nv_delay] require
   bn = true, [nv_ret] requires kr = true: a by-name value exists only when bn allows it, a KRet only when
   kr does.  Hflags (bn && kr = false) is used in [nv_no_clash] and [cut_no_clash] and nowhere else: a
   clash would need one value of each kind. *)
Inductive nv : bval -> Prop :=
| nv_int : forall z, nv (BP (PInt z))
| nv_ctor : forall tag args, nvs args -> nv (BP (PCtor tag args))
| nv_cocase : forall cls e, forallb sgc cls = true -> ne e -> nv (BP (PCocase cls e))
| nv_thunk : forall a s e, bn = true -> sgs s = true -> ne e -> nv (BP (PThunk a s e))
| nv_delay : forall m, bn = true -> nm m -> nv (BP (PDelay m))
| nv_mut : forall x s e, sgs s = true -> ne e -> nv (BK (KMuT x s e))
| nv_case : forall cls e, forallb sgc cls = true -> ne e -> nv (BK (KCase cls e))
| nv_dtor : forall tag args, nvs args -> nv (BK (KDtor tag args))
| nv_ret : forall m, kr = true -> nm m -> nv (BK (KRet m))
with nvs : list bval -> Prop :=
| nvs_nil : nvs []
| nvs_cons : forall v l, nv v -> nvs l -> nvs (v :: l)
with ne : cenv -> Prop :=
| ne_nil : ne []
| ne_cons : forall x v e, nv v -> ne e -> ne ((x, v) :: e)
with nm : mk -> Prop :=
| nm_args : forall done rest e f, nvs done -> forallb sga rest = true -> ne e -> nf f -> nm (MArgs done rest e f)
| nm_opL : forall o b e m, sgt b = true -> aop b = true -> ne e -> nm m -> nm (MOpL o b e m)
| nm_opR : forall o x m, nm m -> nm (MOpR o x m)
| nm_if1 : forall so b t el e,
    match b with Some b' => sgt b' && aop b' | None => true end = true -> sgs t = true -> sgs el = true -> ne e ->
    nm (MIf1 so b t el e)
| nm_if2 : forall so x t el e, sgs t = true -> sgs el = true -> ne e -> nm (MIf2 so x t el e)
| nm_print : forall nl next e, sgs next = true -> ne e -> nm (MPrint nl next e)
| nm_exit : nm MExit
| nm_cutK : forall k e, sgt k = true -> ne e -> nm (MCutK k e)
| nm_cutP : forall cd p e, sgt p = true -> cut_ok bn cd p = true -> ne e -> nm (MCutP cd p e)
with nf : fin -> Prop :=
| nf_call : forall f, nf (FinCall f)
| nf_xp : forall tag m, nm m -> nf (FinXtorP tag m)
| nf_xk : forall tag m, nm m -> nf (FinXtorK tag m).

Inductive nc : config -> Prop :=
| nc_run : forall s e, sgs s = true -> ne e -> nc (Run s e)
| nc_arg : forall a e m, sga a = true -> ne e -> nm m -> nc (Arg a e m)
| nc_app : forall m v, nm m -> nv v -> nc (App m v).

Definition sres_ok (r : sres) : Prop :=
  match r with SNext c => nc c | SPrint _ _ c => nc c | SHalt _ => True end.

Lemma ne_lookup : forall e x v, ne e -> clookup e x = Some v -> nv v.
Proof.
  induction 1 as [|y w e Hw He IH]; simpl; intros L; [discriminate|].
  destruct (cident_eqb y x); [congruence | auto].
Qed.
Lemma ne_cbind : forall xs vs e e1, nvs vs -> ne e -> cbind xs vs e = Some e1 -> ne e1.
Proof.
  induction xs as [|x xs IH]; intros vs e e1 HV HE B; destruct vs as [|v vs]; simpl in B; try discriminate.
  - congruence.
  - destruct (cbind xs vs e) as [e2|] eqn:E2; [|discriminate]. inversion B; subst.
    inversion HV; subst. constructor; eauto.
Qed.
Lemma nvs_rev_append : forall a b, nvs a -> nvs b -> nvs (rev_append a b).
Proof. induction a as [|x a IH]; simpl; intros b Ha Hb; auto. inversion Ha; subst. apply IH; auto. constructor; auto. Qed.

Lemma sg_find_clause : forall cls tag c, forallb sgc cls = true -> cfind_clause cls tag = Some c -> sgs (cl_body c) = true.
Proof.
  unfold cfind_clause. induction cls as [|c0 cls IH]; simpl; intros tag c H F; [discriminate|].
  apply andb_true_iff in H. destruct H as [H0 H].
  destruct (cident_eqb (cl_xtor c0) tag).
  - inversion F; subst. destruct c; exact H0.
  - eauto.
Qed.

Lemma select_n : forall cls ce tag args, forallb sgc cls = true -> ne ce -> nvs args -> sres_ok (select cls ce tag args).
Proof.
  intros cls ce tag args H HE HV. unfold select.
  destruct (cfind_clause cls tag) as [c|] eqn:F; [|exact I].
  destruct (cbind (cvars (cl_ctx c)) args ce) as [e1|] eqn:B; [|exact I].
  simpl. constructor; [eapply sg_find_clause; eauto | eapply ne_cbind; eauto].
Qed.

Lemma sg_find_def : forall f d, cfind_def ps f = Some d -> sgs (cdbody d) = true.
Proof.
  unfold cfind_def, sg_prog in *. intros f d F. apply find_some in F. destruct F as [F _].
  rewrite forallb_forall in Hprog. apply Hprog; exact F.
Qed.

Lemma finish_n : forall f vals, nf f -> nvs vals -> sres_ok (finish_args ps f vals).
Proof.
  intros f vals HF HV. destruct HF; simpl.
  - destruct (cfind_def ps f) as [d|] eqn:FD; [|exact I].
    destruct (cbind (cvars (cdctx d)) vals []) as [e1|] eqn:B; [|exact I].
    simpl. constructor; [eapply sg_find_def; eauto | eapply ne_cbind; eauto; constructor].
  - constructor; [assumption | constructor; assumption].
  - constructor; [assumption | constructor; assumption].
Qed.
Lemma start_n : forall args e f, forallb sga args = true -> ne e -> nf f -> sres_ok (start_args ps args e f).
Proof.
  intros args e f HA HE HF. destruct args as [|a r]; simpl.
  - apply finish_n; [assumption | constructor].
  - simpl in HA. apply andb_true_iff in HA. destruct HA. constructor; auto. constructor; auto. constructor.
Qed.

Lemma interact_val_n : forall pv kv, nv (BP pv) -> nv (BK kv) -> sres_ok (interact_val pv kv).
Proof.
  intros pv kv HP HK. inversion HK; subst.
  - simpl. constructor; auto. constructor; auto.
  - inversion HP; subst; simpl; try exact I.
    + apply select_n; auto.
    + constructor; auto. constructor; auto.
    + constructor; auto.
  - inversion HP; subst; simpl; try exact I.
    + apply select_n; auto.
    + constructor; auto. constructor; auto.
    + constructor; auto.
  - inversion HP; subst; simpl; try (constructor; auto).
    + constructor; auto.
Qed.
Lemma interact_mu_n : forall cd a s e kv,
  sgs s = true -> (cd = true -> bn = true) -> ne e -> nv (BK kv) -> sres_ok (interact_mu cd a s e kv).
Proof.
  intros cd a s e kv HS HC HE HK.
  assert (G : nc (Run s ((a, BK kv) :: e))) by (constructor; auto; constructor; auto).
  destruct cd; simpl; [|exact G].
  inversion HK; subst; try exact G.
  constructor; auto. constructor; auto. constructor; auto.
Qed.
Lemma khead_n : forall k e kv, sgt k = true -> ne e -> khead k e = inl kv -> nv (BK kv).
Proof.
  intros k e kv HK HE H. destruct k; simpl in H; try discriminate.
  - destruct (clookup e v) as [[pv|kv0]|] eqn:L; try discriminate. inversion H; subst. eapply ne_lookup; eauto.
  - inversion H; subst. constructor; auto.
  - inversion H; subst. constructor; auto.
Qed.
Lemma cut_with_k_n : forall cd p e kv,
  sgt p = true -> cut_ok bn cd p = true -> ne e -> nv (BK kv) -> sres_ok (cut_with_k cd p e kv).
Proof.
  intros cd p e kv HP HC HE HK. destruct p; simpl; try exact I.
  - destruct (clookup e v) as [[pv|kv0]|] eqn:L; try exact I. apply interact_val_n; auto. eapply ne_lookup; eauto.
  - apply interact_val_n; auto. constructor.
  - apply interact_mu_n; auto. intros ->. simpl in HC. exact HC.
  - apply interact_val_n; auto. constructor; auto.
Qed.

Lemma sg_arg_prd : forall t, sgt t = true -> aop t = true -> sga (CProducer t) = true.
Proof. intros t A B. change (sgt t && aop t = true). rewrite A, B. reflexivity. Qed.

Theorem nc_step : forall c, nc c -> sres_ok (cstep ps c).
Proof.
  intros c H. destruct H as [s e HS HE|a e m HA HE HM|m v HM HV].
  - destruct s as [p ty k|so a b t el|nl a next|f args ty|a ty]; simpl in HS.
    + apply andb_true_iff in HS. destruct HS as [HS HC]. apply andb_true_iff in HS. destruct HS as [HP HK].
      assert (XP : forall pc px pargs pt, p = CXtor pc px pargs pt -> sres_ok (cstep ps (Run (CCut p ty k) e))).
      { intros pc px pargs pt ->. simpl. apply start_n; auto. constructor. constructor; auto. }
      assert (XK : forall qc qx qargs qt0, not_xtor p -> k = CXtor qc qx qargs qt0 -> sres_ok (cstep ps (Run (CCut p ty k) e))).
      { intros qc qx qargs qt0 NP ->.
        replace (cstep ps (Run (CCut p ty (CXtor qc qx qargs qt0)) e))
          with (start_args ps qargs e (FinXtorK qx (MCutP (is_codata ps ty) p e)))
          by (destruct p; try contradiction; reflexivity).
        apply start_n; auto. constructor. constructor; auto. }
      assert (XO : forall a o b, not_xtor k -> p = COp a o b -> sres_ok (cstep ps (Run (CCut p ty k) e))).
      { intros a o b NK ->.
        replace (cstep ps (Run (CCut (COp a o b) ty k) e))
          with (SNext (Arg (CProducer a) e (MOpL o b e (MCutK k e))))
          by (destruct k; try contradiction; reflexivity).
        simpl in HP. apply andb_true_iff in HP. destruct HP as [HA HB].
        apply andb_true_iff in HA. destruct HA. apply andb_true_iff in HB. destruct HB.
        simpl. constructor; auto. { apply sg_arg_prd; auto. } constructor; auto. constructor; auto. }
      assert (XH : head_prd p -> not_xtor k -> sres_ok (cstep ps (Run (CCut p ty k) e))).
      { intros HPp NK.
        replace (cstep ps (Run (CCut p ty k) e))
          with (match khead k e with inl kv => cut_with_k (is_codata ps ty) p e kv | inr why => stuck why end)
          by (destruct p; try contradiction; destruct k; try contradiction; reflexivity).
        destruct (khead k e) as [kv|why] eqn:KH; [|exact I].
        apply cut_with_k_n; auto. eapply khead_n; eauto. }
      destruct p; try (eapply XP; reflexivity);
        destruct k; try (eapply XK; [exact I|reflexivity]); try (eapply XO; [exact I|reflexivity]);
        apply XH; exact I.
    + repeat (apply andb_true_iff in HS; destruct HS as [HS ?]).
      simpl. constructor; auto. { apply sg_arg_prd; auto. } constructor; auto.
    + repeat (apply andb_true_iff in HS; destruct HS as [HS ?]).
      simpl. constructor; auto. { apply sg_arg_prd; auto. } constructor; auto.
    + simpl. apply start_n; auto. constructor.
    + apply andb_true_iff in HS. destruct HS.
      simpl. constructor; auto. { apply sg_arg_prd; auto. } constructor.
  - destruct a as [t|t]; simpl in HA; apply andb_true_iff in HA; destruct HA as [HT HO].
    + destruct t as [c0 v ty|n|a o b|c0 v s ty|c0 tag args ty|c0 cls ty]; simpl.
      * destruct (clookup e v) as [[pv|kv]|] eqn:L; try exact I. constructor; auto. eapply ne_lookup; eauto.
      * constructor; auto. constructor.
      * simpl in HT. apply andb_true_iff in HT. destruct HT as [HA HB].
        apply andb_true_iff in HA. destruct HA. apply andb_true_iff in HB. destruct HB.
        constructor; auto. { apply sg_arg_prd; auto. } constructor; auto.
      * simpl in HT, HO. destruct (is_codata ps ty).
        -- constructor; auto. constructor; auto.
        -- constructor; auto. constructor; auto. constructor; auto.
      * apply start_n; auto. constructor; auto.
      * constructor; auto. constructor; auto.
    + destruct t as [c0 v ty|n|a o b|c0 v s ty|c0 tag args ty|c0 cls ty]; simpl; try exact I.
      * destruct (clookup e v) as [[pv|kv]|] eqn:L; try exact I. constructor; auto. eapply ne_lookup; eauto.
      * simpl in HT, HO. destruct (is_codata ps ty).
        -- constructor; auto. constructor; auto. constructor; auto.
        -- constructor; auto. constructor; auto.
      * apply start_n; auto. constructor; auto.
      * constructor; auto. constructor; auto.
  - destruct HM; simpl.
    + destruct rest as [|a r].
      * apply finish_n; auto. apply nvs_rev_append; [assumption | constructor; [assumption | constructor]].
      * simpl in H0. apply andb_true_iff in H0. destruct H0. constructor; auto. constructor; auto. constructor; auto.
    + destruct (as_int v); [|exact I]. constructor; auto. { apply sg_arg_prd; auto. } constructor; auto.
    + destruct (as_int v); [|exact I]. destruct (eval_op (ax_binop o) x z); [|exact I]. constructor; auto. constructor.
    + destruct (as_int v); [|exact I]. destruct b as [b0|].
      * apply andb_true_iff in H. destruct H. constructor; auto. { apply sg_arg_prd; auto. } constructor; auto.
      * constructor; auto. destruct (eval_cmp (ax_ifsort so) z 0); auto.
    + destruct (as_int v); [|exact I]. constructor; auto. destruct (eval_cmp (ax_ifsort so) x z); auto.
    + destruct (as_int v); [|exact I]. constructor; auto.
    + destruct (as_int v); exact I.
    + destruct v as [pv|kv]; [|exact I]. destruct (khead k e) as [kv|why] eqn:KH; [|exact I].
      apply interact_val_n; auto. eapply khead_n; eauto.
    + destruct v as [pv|kv]; [exact I|]. apply cut_with_k_n; auto.
Qed.

(* no clash in an invariant configuration *)
(* why the guard works: an invariant by-name value needs bn, an invariant KRet needs kr, and the guard allows
   only one of the two *)
Lemma flags_excl : bn = true -> kr = true -> False.
Proof. intros A B. rewrite A, B in Hflags. discriminate. Qed.
Lemma nv_no_clash : forall pv kv, nv (BP pv) -> nv (BK kv) -> clash_val pv kv = false.
Proof.
  intros pv kv HP HK. unfold clash_val. destruct kv; simpl; try reflexivity.
  (* kv = KRet: pv must not be a thunk or a delayed statement *)
  inversion HK. destruct pv; simpl; try reflexivity; inversion HP; exfalso; apply flags_excl; assumption.
Qed.
Lemma cut_no_clash : forall cd p e kv,
  cut_ok bn cd p = true -> ne e -> nv (BK kv) -> clash_cut cd p e kv = false.
Proof.
  intros cd p e kv HC HE HK. destruct p; simpl; try reflexivity.
  - destruct (clookup e v) as [[pv|kv0]|] eqn:L; try reflexivity. apply nv_no_clash; auto. eapply ne_lookup; eauto.
  - simpl in HC. destruct cd; [|reflexivity]. destruct kv; simpl; try reflexivity.
    (* a mu at a codata cut meets a KRet: cut_ok says bn, the KRet says kr *)
    inversion HK. exfalso. apply flags_excl; assumption.
Qed.

Theorem nc_no_clash : forall c, nc c -> clash_config ps c = false.
Proof.
  intros c H. destruct H as [s e HS HE|a e m HA HE HM|m v HM HV]; simpl; try reflexivity.
  - destruct s as [p ty k| | | |]; try reflexivity. simpl in HS.
    apply andb_true_iff in HS. destruct HS as [HS HC]. apply andb_true_iff in HS. destruct HS as [HP HK].
    assert (G : match khead k e with inl kv => clash_cut (is_codata ps ty) p e kv | inr _ => false end = false).
    { destruct (khead k e) as [kv|] eqn:KH; [|reflexivity]. apply cut_no_clash; auto. eapply khead_n; eauto. }
    destruct p; try reflexivity; destruct k; try reflexivity; exact G.
  - destruct HM; try reflexivity.
    + destruct v as [pv|kv]; [|reflexivity]. destruct (khead k e) as [kv|] eqn:KH; [|reflexivity].
      apply nv_no_clash; auto. eapply khead_n; eauto.
    + destruct v as [pv|kv]; [reflexivity|]. apply cut_no_clash; auto.
Qed.

Theorem nc_clash_free : forall fuel c, nc c -> clash_free ps fuel c = true.
Proof.
  induction fuel as [|f IH]; intros c H; simpl; [reflexivity|].
  rewrite (nc_no_clash c H). simpl. pose proof (nc_step c H) as S.
  destruct (cstep ps c); simpl in S; auto.
Qed.

Lemma nvs_ints : forall zs : list Z, nvs (map (fun z => BP (PInt z)) zs).
Proof. induction zs; simpl; constructor; auto. constructor. Qed.

Theorem sg_clash_free_prog : forall fuel args, clash_free_prog fuel ps args = true.
Proof.
  intros fuel args. unfold clash_free_prog.
  destruct (cpdefs ps) as [|d ds] eqn:DP; [reflexivity|].
  destruct (centry_env d args) as [e|] eqn:CE; [|reflexivity].
  apply nc_clash_free. constructor.
  - unfold sg_prog in Hprog. rewrite DP in Hprog. simpl in Hprog. apply andb_true_iff in Hprog. tauto.
  - unfold centry_env in CE. destruct (forallb _ (cdctx d)); [|discriminate].
    eapply ne_cbind; eauto; [apply nvs_ints | constructor].
Qed.
End Inv.
