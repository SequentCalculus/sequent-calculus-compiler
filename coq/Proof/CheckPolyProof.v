(* C15, programs WITH type parameters and type arguments: soundness and exactness of [check] under BOTH guards
   (Proof/CheckFixed.v drops the second, and is what Props/C15.v quotes), the example program [p_poly] that satisfies
   the guards, and the witness that the name guard is needed.
   Guards (boolean):
     prog_names_ok p   every type / constructor / destructor name is free of "[" "]" "," " " and is not
                       "i64" (true of every parsed program: the lexer's name classes);
     decl_types_wf ts  the types written inside data/codata declarations are well-formed (the
                       complement of the former finding C15-lazy-declaration-types; since fix eb42971
                       implied by acceptance: Proof/CheckDecls.v, and the unguarded theorems are in
                       Proof/CheckFixed.v). *)
From Coq Require Import List ZArith String Bool Permutation.
From SCC Require Import Lang.FunSyn Model.Check Sem.FunTyping
  Proof.CheckWitness Proof.CheckBuild Proof.PrintInj Proof.CheckPoly Proof.CheckPolySound Proof.CheckPolyProg
  Proof.CheckPolyComplete Proof.CheckPolyProgC.
Import ListNotations.
Local Open Scope string_scope.

Lemma check_sound_poly : forall p q,
  prog_names_ok p = true -> decl_types_wf (tdecls (fpdecls p)) = true -> check p = COk q -> has_type p.
Proof. intros p q Hn Hw H. exact (check_gen_sound_poly true p q Hn Hw H). Qed.
Lemma check_before_fix_sound_poly : forall p q,
  prog_names_ok p = true -> decl_types_wf (tdecls (fpdecls p)) = true -> check_before_fix p = COk q -> has_type p.
Proof. intros p q Hn Hw H. exact (check_gen_sound_poly false p q Hn Hw H). Qed.

Lemma has_type_decl_types_wf : forall p, has_type p -> decl_types_wf (tdecls (fpdecls p)) = true.
Proof.
  intros p H. unfold has_type, has_type_b in H. apply andb_true_iff in H. destruct H as [H _].
  apply andb_true_iff in H. destruct H as [_ H]. apply decls_ok_types_wf. exact H.
Qed.
(* for identifier-like names the checker decides the typing rules up to the declaration types *)
Lemma check_exact_poly : forall p, prog_names_ok p = true ->
  (has_type p <-> (exists q, check p = COk q) /\ decl_types_wf (tdecls (fpdecls p)) = true).
Proof.
  intros p Hn. split.
  - intros H. split; [apply check_complete_poly; assumption|apply has_type_decl_types_wf; assumption].
  - intros [[q Hq] Hw]. eapply check_sound_poly; eassumption.
Qed.
Lemma check_order_independent_poly : forall p p', prog_names_ok p = true -> prog_names_ok p' = true ->
  decl_types_wf (tdecls (fpdecls p)) = true -> decl_types_wf (tdecls (fpdecls p')) = true ->
  (has_type p <-> has_type p') -> ((exists q, check p = COk q) <-> (exists q, check p' = COk q)).
Proof.
  intros p p' Hn Hn' Hw Hw' H. split; intros Hq.
  - apply check_complete_poly; [assumption|]. apply H. apply check_exact_poly; auto.
  - apply check_complete_poly; [assumption|]. apply H. apply check_exact_poly; auto.
Qed.
Lemma check_before_fix_accepts_check_accepts_poly : forall p q, prog_names_ok p = true ->
  decl_types_wf (tdecls (fpdecls p)) = true -> check_before_fix p = COk q -> exists q', check p = COk q'.
Proof.
  intros p q Hn Hw H. apply check_complete_poly; [assumption|]. eapply check_before_fix_sound_poly; eassumption.
Qed.

(* the hypotheses are satisfiable: a program with nested instances
     data List[A] { Nil, Cons(x: A, xs: List[A]) }
     data Pair[A, B] { MkPair(fst: A, snd: B) }
     codata Fun[A, B] { ap(x: A): B }
     def len(l: List[i64]): i64 { l.case[i64] { Nil => 0, Cons(x, xs) => 1 + len(xs) } }
     def wrap(): List[List[i64]] { Cons(Cons(1, Nil), Nil) }
     def inc(): Fun[i64, i64] { new { ap(x) => x + 1 } }
     def swap(p: Pair[i64, List[i64]]): Pair[List[i64], i64] { p.case[i64, List[i64]] { MkPair(a, b) => MkPair(b, a) } }
     def main(): i64 { inc().ap[i64, i64](len(Cons(1, Nil))) } *)
Definition tA := FDecl "A" []. Definition tB := FDecl "B" [].
Definition tList (a : fty) := FDecl "List" [a].
Definition tPair (a b : fty) := FDecl "Pair" [a; b].
Definition v (x : string) := FVar x None None.
Definition p_poly : fprog :=
  mkfprog [FDData (mkfdata "List" ["A"] [mkfctor "Nil" []; mkfctor "Cons" [mkfb "x" FPrd tA; mkfb "xs" FPrd (tList tA)]]);
           FDData (mkfdata "Pair" ["A"; "B"] [mkfctor "MkPair" [mkfb "fst" FPrd tA; mkfb "snd" FPrd tB]]);
           FDCodata (mkfcodata "Fun" ["A"; "B"] [mkfdtor "ap" [mkfb "x" FPrd tA] tB]);
           FDDef (mkfdef "len" [mkfb "l" FPrd (tList FI64)] FI64
                    (FCase (v "l") [FI64]
                       [FClause FData "Nil" [] [] (FLit 0);
                        FClause FData "Cons" ["x"; "xs"] [] (FOp (FLit 1) FSum (FCall "len" [v "xs"] None))] None));
           FDDef (mkfdef "wrap" [] (tList (tList FI64))
                    (FCtor "Cons" [FCtor "Cons" [FLit 1; FCtor "Nil" [] None] None; FCtor "Nil" [] None] None));
           FDDef (mkfdef "inc" [] (FDecl "Fun" [FI64; FI64])
                    (FNew [FClause FCodata "ap" ["x"] [] (FOp (v "x") FSum (FLit 1))] None));
           FDDef (mkfdef "swap" [mkfb "p" FPrd (tPair FI64 (tList FI64))] (tPair (tList FI64) FI64)
                    (FCase (v "p") [FI64; tList FI64]
                       [FClause FData "MkPair" ["a"; "b"] [] (FCtor "MkPair" [v "b"; v "a"] None)] None));
           FDDef (mkfdef "main" [] FI64
                    (FDtor (FCall "inc" [] None) "ap" [FI64; FI64]
                       [FCall "len" [FCtor "Cons" [FLit 1; FCtor "Nil" [] None] None] None] None))].
Lemma p_poly_names_ok : prog_names_ok p_poly = true.
Proof. vm_compute. reflexivity. Qed.
Lemma p_poly_decl_types_wf : decl_types_wf (tdecls (fpdecls p_poly)) = true.
Proof. vm_compute. reflexivity. Qed.
Lemma p_poly_well_typed : has_type p_poly.
Proof. vm_compute. reflexivity. Qed.
Lemma p_poly_accepted : exists q, check p_poly = COk q /\ map fdaname (fcpdata q) = ["List[List[i64]]"; "List[i64]"; "Pair[List[i64], i64]"; "Pair[i64, List[i64]]"]
                                  /\ map fcoaname (fcpcodata q) = ["Fun[i64, i64]"].
Proof. eexists. split; [vm_compute; reflexivity|]. split; reflexivity. Qed.

(* the name guard is needed: at the level of syntax trees a type may be NAMED like an instance
     data List[A] { Nil, Cons(x: A, xs: List[A]) }
     def f(): List[i64] { Nil }
     def g(x: <the type named "List[i64]", no arguments>): i64 { 0 }
   the second definition is accepted because the key "List[i64]" is in the instance table. No parsed
   program is like this: type names are [A-Z][a-zA-Z0-9_]*. *)
Definition p_named_like_instance : fprog :=
  mkfprog [FDData (mkfdata "List" ["A"] [mkfctor "Nil" []; mkfctor "Cons" [mkfb "x" FPrd tA; mkfb "xs" FPrd (tList tA)]]);
           FDDef (mkfdef "f" [] (tList FI64) (FCtor "Nil" [] None));
           FDDef (mkfdef "g" [mkfb "x" FPrd (FDecl "List[i64]" [])] FI64 (FLit 0))].
Lemma names_guard_needed :
  decl_types_wf (tdecls (fpdecls p_named_like_instance)) = true /\ prog_names_ok p_named_like_instance = false
  /\ (exists q, check p_named_like_instance = COk q) /\ has_type_b p_named_like_instance = false.
Proof. split; [vm_compute; reflexivity|]. split; [vm_compute; reflexivity|]. split; [eexists; vm_compute; reflexivity|vm_compute; reflexivity]. Qed.
Lemma check_sound_without_names_guard_refuted :
  ~ (forall p q, decl_types_wf (tdecls (fpdecls p)) = true -> check p = COk q -> has_type p).
Proof.
  intro H. destruct names_guard_needed as [Hw [_ [[q Hq] Hill]]].
  specialize (H _ _ Hw Hq). unfold has_type in H. rewrite Hill in H. discriminate.
Qed.
