(* C06, forward simulation for HEAP statements: what the program-level induction carries along
   (`hinv`: the invariant of the instrumented machine of C09 - InvA with the pointers of the environment as
   roots, chains owned, values represented, the environment typed -, the slot-count invariant P03, and the
   room in the heap region for everything the run will still allocate), progress facts of the machine under
   the relation, and the initial relation. *)
From Coq Require Import List ZArith NArith String Bool Lia FMapPositive Permutation.
From SCC Require Import Proof.X86Mem Proof.X86MemFrame Proof.X86StackFrame.
From SCC Require Import Base.Sexp Lang.AxSyn Sem.AxSem Sem.AxHeap Model.ParMoves Model.Backend Model.X86 Sem.X86Sem Sem.X86Wf
     Model.Linearize Model.LinCheck Generated.Constants Proof.LinBasics Proof.LinTyping Proof.X86State Proof.X86Sel Proof.X86Exec Proof.X86ParMoves
     Proof.SubstGraph Proof.X86Subst Proof.X86SimRel Proof.X86SimStmt Proof.X86SimPrint Proof.X86SimAddr Proof.X86SimClo Proof.X86SimProg Proof.X86SimTop
     Proof.X86HeapDefs Proof.X86HeapCongr Proof.X86HBridge Proof.X86HFrame
     Proof.X86HSimRel Proof.X86HSimStmt Proof.X86HConv Proof.X86HSimStore Proof.X86HSimLoad Proof.X86HSimSubst Proof.X86HLayout
     Proof.X86HSimHeapA Proof.X86HAnn Proof.X86HSimHeapB Proof.X86HSimHeapC.
From SCC Require Model.Heap Proof.HeapMore Proof.HeapTrace Proof.HeapRep Proof.AxHeapTyping Proof.AxHeapSafe Proof.AxHeapSubst.
Import ListNotations.
Open Scope Z_scope.
Open Scope list_scope.

Lemma hsteps_cons p he hs s ops he' s' pr tr c' :
  hstep p he hs s = HStep ops he' s' pr -> hsteps p (mkhc he' (hrun ops hs) s') tr c' ->
  hsteps p (mkhc he hs s) (ops ++ tr) c'.
Proof.
  intros HS H. remember (mkhc he' (hrun ops hs) s') as c1 eqn:E1.
  induction H as [c|c tr c2 ops2 he2 s2 pr2 H IH HS2]; subst.
  - rewrite app_nil_r. rewrite <- (app_nil_l ops).
    apply (hsteps_step p (mkhc he hs s) [] (mkhc he hs s) ops he' s' pr); [apply hsteps_refl|exact HS].
  - rewrite app_assoc. eapply hsteps_step; [apply IH; reflexivity|exact HS2].
Qed.

Lemma hstep_machine_ops p he hs s ops he' s' pr : hstep p he hs s = HStep ops he' s' pr -> Forall machine_op ops.
Proof.
  intros H. destruct s; cbn [hstep] in H;
    repeat match type of H with
           | match ?x with _ => _ end = _ => destruct x; try discriminate
           | (if ?x then _ else _) = _ => destruct x; try discriminate
           end; injection H as <- _ _ _; try (constructor; fail); try (repeat constructor; fail).
  - unfold subst_ops. apply Forall_forall. intros o Ho. apply in_flat_map in Ho as (bt & _ & Ho).
    unfold AxHeap.rc_op in Ho. destruct (bchi (fst bt)); try (destruct Ho; fail);
      (destruct (List.length (snd bt)) as [|[|m]]; cbn in Ho; try (destruct Ho; fail); destruct Ho as [<-|[]]; exact I).
  - unfold load_ops. destruct (List.length _); repeat constructor.
  - unfold load_ops. destruct (List.length _); repeat constructor.
Qed.

Section Inv.
Variable p : prog.
Hypothesis LP : lin_check_prog p = true.

Record hinv (he : henv) (hs : Heap.st) (s : stmt) : Prop := mk_hinv {
  hi_inv : AxHeapSafe.HInv HEAP_BASE he hs;
  hi_wt : AxHeapTyping.cfg_wt p he s;
  hi_p03 : P03 hs;
  hi_fit : forall tr c', hsteps p (mkhc he hs s) tr c' -> Heap.frontier (hc_heap c') + 64 <= LIMIT
}.

Lemma hinv_step he hs s ops he' s' pr :
  hinv he hs s -> hstep p he hs s = HStep ops he' s' pr -> hinv he' (hrun ops hs) s'.
Proof.
  intros [HI WT K FIT] HS.
  destruct (AxHeapSafe.hstep_safe HEAP_BASE p he hs s ops he' s' pr WT HI HS) as (_ & _ & HI').
  split; [exact HI'|eapply AxHeapTyping.hstep_wt; eauto|apply P03_hrun; [exact K|eapply hstep_machine_ops; eauto]|].
  intros tr c' H. apply (FIT (ops ++ tr) c'). eapply hsteps_cons; eauto.
Qed.
Lemma hinv_invA he hs s : hinv he hs s -> exists hl fl cl, InvA HEAP_BASE hs (roots he) hl fl cl.
Proof. intros [(lk & IA & _) _ _ _]. exact IA. Qed.
Lemma hinv_fit0 he hs s : hinv he hs s -> Heap.frontier hs + 64 <= LIMIT.
Proof. intros H. apply (hi_fit _ _ _ H [] (mkhc he hs s)). apply hsteps_refl. Qed.
Lemma hinv_ptrs_ok he hs s : hinv he hs s -> forall en, In en he -> chi_of (h_val en) = Ext -> h_ptr en = 0.
Proof. intros [(lk & _ & _ & ER) _ _ _]. exact (AxHeapSafe.reps_ptrs_ok _ _ _ ER). Qed.
Lemma hinv_regs_nz he hs s : hinv he hs s -> Heap.heap hs <> 0 /\ Heap.free hs <> 0.
Proof.
  intros H. destruct (hinv_invA _ _ _ H) as (hl & fl & cl & IA). pose proof (proj1 IA) as I. split.
  - eapply HeapMore.heap_nonzero; eauto.
  - destruct (free_blk _ _ _ _ _ IA) as [(k & Hk & E) _]. unfold HEAP_BASE, Heap.BLOCK in E. lia.
Qed.
(* the representation of the last entry of the environment *)
Lemma hinv_last_rep he0 x v q hs s : hinv (he0 ++ [(x, v, q)]) hs s -> exists lk, HeapRep.rep lk (Heap.m hs) v q.
Proof.
  intros [(lk & _ & _ & ER) _ _ _]. exists lk. unfold AxHeapSafe.env_rep in ER.
  unfold ptrs in ER. rewrite !map_app in ER. apply HeapRep.reps_app_inv in ER as (p1 & p2 & E & _ & R2).
  cbn [map h_val h_ptr fst snd] in *. inversion R2 as [|v0 vs0 p0 pl0 RV RS]; subst. inversion RS; subst.
  apply app_inj_tail in E as [_ E]. subst p0. exact RV.
Qed.
End Inv.

Section Names.
Variable types : list tydecl.
Variable CLO : Z -> ident -> list clause -> ctx -> Prop.
Local Notation hrel := (hrel types CLO).

Lemma hrel_ctx_of c he hs s sp : hrel c he hs s sp -> map h_id he = vars c -> ctx_of he = c.
Proof.
  intros R NM. pose proof (hrel_length R) as LEN.
  apply nth_ext with (d := mkb ("", 0%N) Ext I64) (d' := mkb ("", 0%N) Ext I64); [unfold ctx_of; now rewrite map_length|].
  intros i Hi. unfold ctx_of in Hi. rewrite map_length in Hi.
  destruct (nth_error he i) as [[[x v] q]|] eqn:He; [|apply nth_error_None in He; lia].
  destruct (hr_vals R i x v q He) as (b & Hb & V).
  unfold ctx_of. rewrite (nth_indep _ _ (binding_of (x, v, q))) by (rewrite map_length; lia).
  rewrite map_nth, (nth_error_nth _ _ _ He), (nth_error_nth _ _ _ Hb).
  assert (EX : x = bvar b).
  { assert (H1 : nth_error (map h_id he) i = Some x) by (rewrite nth_error_map, He; reflexivity).
    rewrite NM in H1. unfold vars in H1. rewrite nth_error_map, Hb in H1. cbn in H1. congruence. }
  assert (EK : chi_of v = bchi b /\ ty_of v = bty b).
  { destruct V as [b z q t A B T Lg|b v q a t1 t2 A K1 K2 T1 T2 L1 L2 X]; cbn; split; congruence. }
  unfold binding_of. cbn [h_id h_val fst snd]. destruct b as [bv bc bt]. cbn in *. destruct EK. subst. reflexivity.
Qed.

(* integer operands *)
Lemma hlookup_of_in (he : henv) x : In x (env_ids (erase_env he)) -> exists en, hlookup he x = Some en.
Proof.
  induction he as [|[[y w] q] he IH]; cbn; [tauto|]. intros [E|H].
  - unfold h_id; cbn. rewrite E, N.eqb_refl. eauto.
  - unfold h_id; cbn. destruct (N.eqb (idn y) x); eauto.
Qed.
Lemma hhas_ext_lookup_int c he hs st sp a : hrel c he hs st sp -> has_ext c a = true -> exists x, lookup_int (erase_env he) a = Some x.
Proof.
  intros R H. unfold has_ext, has in H. destruct (lookup_b c (idn a)) as [b|] eqn:L; [|discriminate].
  apply lookup_b_Some in L as [Hin Hid]. apply andb_true_iff in H as [K T]. apply chi_eqb_eq in K. apply ty_eqb_eq in T.
  assert (I : In (idn a) (env_ids (erase_env he))).
  { rewrite (hr_ids R), <- Hid. now apply In_ids. }
  destruct (lookup_of_in (erase_env he) _ I) as (v & Lv). destruct (hlookup_nth he _ _ Lv) as (i & y & q & Hi & Ey).
  destruct (hr_vals R i y v q Hi) as (b' & Hb' & V).
  destruct (henv_ctx_nth c he i y v q (hr_ids R) Hi) as (b0 & Hb0 & Eb0). assert (b0 = b') by congruence. subst b0.
  apply In_nth_error in Hin as (i' & Hi').
  assert (i' = i) by (eapply (ids_nth_inj c i' i b b'); eauto using (hr_nodup R); congruence). subst i'.
  assert (b' = b) by congruence. subst b'.
  inversion V; subst; [|congruence]. exists z. unfold lookup_int, lookup_id. now rewrite Lv.
Qed.
Lemma hsubst_total (he : henv) : forall re, (forall q, In q re -> In (idn (snd q)) (env_ids (erase_env he))) -> exists he', hsubst he re = Some he'.
Proof.
  induction re as [|[nb old] re IH]; intros H; cbn [hsubst]; [eauto|].
  destruct (hlookup_of_in he (idn old) (H (nb, old) (or_introl eq_refl))) as (en & ->).
  destruct IH as (he' & ->); [intros q Hq; apply H; now right|]. eauto.
Qed.
Lemma hsubst_names : forall re (he he' : henv), hsubst he re = Some he' -> map h_id he' = vars (map fst re).
Proof.
  induction re as [|[nb old] re IH]; intros he he' H; cbn [hsubst] in H.
  - inversion H. reflexivity.
  - destruct (hlookup he (idn old)) as [en|]; [|discriminate]. destruct (hsubst he re) as [hr|] eqn:R; [|discriminate].
    inversion H; subst. cbn. f_equal. eapply IH; eauto.
Qed.
Lemma attach_names : forall (e : env) ps, map h_id (attach e ps) = map fst e.
Proof. induction e as [|xv e IH]; intros [|q ps]; cbn; f_equal; auto. Qed.
End Names.

Lemma hframe_eq_outer s s' sp : sp_ok sp -> hframe_eq s s' sp -> outer_ok s sp -> outer_ok s' sp.
Proof.
  intros SP (_ & K) (A & B). split; [exact A|]. change SPILL_SPACE with 2048 in *.
  assert (G : forall a, sp + 2048 <= a -> kget s' a = kget s a).
  { intros a Ha. unfold kget. apply K. intros q P E.
    destruct (slot_addr_facts sp q SP P) as (_ & _ & _ & _ & NN).
    apply key_inj in E; [|unfold sp_ok, STACK_LIMIT, STACK_TOP in SP; lia|exact NN].
    unfold slot_addr, stack_offset in E. change SPILL_SPACE with 2048 in E. lia. }
  rewrite !G by lia. exact B.
Qed.

(* the entry: the integer relation of Proof/X86SimRel.v (no closure can stand in it when nothing is a code address)
   with the allocator registers and the empty heap after the prologue is the heap relation at the initial heap *)
Lemma hentry_rel types CLO c0 e0 s :
  rel (fun _ _ _ => False) c0 e0 s sp0 ->
  rget s HEAP = Some HEAP_BASE -> rget s FREE = Some (HEAP_BASE + 64) -> heap s = PM.empty Z ->
  hrel types CLO c0 (attach e0 []) (Heap.init HEAP_BASE) s sp0.
Proof.
  intros [F AL RO _ IDS ND VALS] RH RF HE. split.
  - exact F.
  - exact AL.
  - exact RO.
  - exact RH.
  - exact RF.
  - split; [cbn [abs_heap Heap.heap Heap.init]; unfold reg_or0; now rewrite RH|]. split; [cbn [abs_heap Heap.free Heap.init]; unfold reg_or0; now rewrite RF|]. split; [reflexivity|].
    intros y _. cbn [abs_heap Heap.m Heap.init]. unfold abs_mem, hword. rewrite HE, !PM.gempty. split; reflexivity.
  - rewrite attach_erase. exact IDS.
  - exact ND.
  - intros i x v q Hi. destruct (attach_nth _ _ _ _ _ _ Hi) as [He _].
    destruct (VALS i x v He) as (b & Hb & V). exists b. split; [exact Hb|].
    destruct V as [b z t K T P L|b tn cls a t1 t2 _ _ _ _ _ _ []]. exact (hv_int types CLO s sp0 i b z q t K T P L).
Qed.
