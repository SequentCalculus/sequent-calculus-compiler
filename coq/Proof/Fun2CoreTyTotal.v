(* Proof/Fun2CoreTyTotal  -  no internal failure of fun2core on guarded programs (C12):
     prog_tyguard p = true -> exists c, compile_prog p = Ok c.
   The failures of the model are `.expect("Types should be annotated ..")` - the guard [tg] demands every
   annotation the translation reads - and, since the repair d5d4151, the (unbounded recursion of the Rust code
   in the) case that the fresh covariable that names a continuation is itself captured by the binder: impossible,
   because the state of the translation of a definition records all its binders ([tot] carries the invariant
   B <= used variables, B the binders of the definition body). *)
From Coq Require Import List ZArith NArith String Bool Lia.
From SCC Require Import Base.Sexp Lang.SynUtil Lang.FunSyn Lang.FunTy Lang.CoreSyn.
From SCC Require Import Sem.AxSem Sem.FunSem Sem.FsCheck Sem.CoreCheck Model.Fun2Core Model.Fun2CoreGuard Model.Fun2CoreTyGuard.
From SCC Require Import Proof.Fun2CoreProof Proof.Fun2CoreInv Proof.Fun2CoreProg Proof.CoreTyRules Proof.Fun2CoreTyBase Proof.Fun2CoreTyScope Proof.Fun2CoreTyEntry.
Import ListNotations.
Open Scope string_scope.
Open Scope list_scope.

Arguments var_ok : simpl never.

(* [tot B m]: m succeeds from every state in which the names B are in use, and leaves them in use.
   B will be the binders of the definition being translated. *)
Definition tot (B : list string) {X} (m : M X) : Prop :=
  forall st, incl B (st_used_vars st) -> exists x st', m st = Ok (x, st') /\ incl B (st_used_vars st').

Lemma tot_ret : forall B X (x : X), tot B (mret x).
Proof. intros B X x st H. exists x, st. split; [reflexivity | exact H]. Qed.
Lemma tot_bind : forall B X Y (m : M X) (f : X -> M Y), tot B m -> (forall x, tot B (f x)) -> tot B (mbind m f).
Proof.
  intros B X Y m f Hm Hf st H. destruct (Hm st H) as [x [st1 [E H1]]]. destruct (Hf x st1 H1) as [y [st2 [E2 H2]]].
  exists y, st2. unfold mbind. rewrite E. split; [exact E2 | exact H2].
Qed.
Lemma tot_lift : forall B X (x : X), tot B (mlift (Ok x)).
Proof. intros B X x st H. exists x, st. split; [reflexivity | exact H]. Qed.
Lemma tot_fresh_in_vars : forall B base, tot B (fresh_in_vars base).
Proof.
  intros B base st H. destruct (fresh_in_vars base st) as [[x st']|e] eqn:E.
  - exists x, st'. split; [reflexivity|]. destruct (fresh_in_vars_inv _ _ _ _ E) as [_ [Hu _]]. rewrite Hu. apply incl_tl. exact H.
  - exfalso. unfold fresh_in_vars in E. destruct (fresh_name (st_used_vars st) base). discriminate E.
Qed.
Lemma tot_fresh_var : forall B, tot B fresh_var.
Proof. intros B. apply tot_fresh_in_vars. Qed.
Lemma tot_fresh_covar : forall B, tot B fresh_covar.
Proof. intros B. apply tot_fresh_in_vars. Qed.
Lemma tot_fresh_label : forall B base, tot B (fresh_label base).
Proof.
  intros B base st H. unfold fresh_label. destruct (fresh_name (st_used_labels st) base) as [nm used'].
  eexists _, _. split; [reflexivity | exact H].
Qed.
Lemma tot_push : forall B d, tot B (push_lifted d).
Proof. intros B d st H. unfold push_lifted. eexists _, _. split; [reflexivity | exact H]. Qed.
(* The monadic plumbing of the translation is left to [auto with tot]. *)
#[export] Hint Resolve tot_ret tot_bind tot_lift tot_fresh_in_vars tot_fresh_var tot_fresh_covar tot_fresh_label tot_push : tot.

Lemma tot_share : forall B cur cont, tot B (share cur cont).
Proof.
  intros B cur cont. unfold share. apply tot_bind.
  - destruct cont; auto with tot.
  - intros [[var ty] body]. auto with tot.
Qed.
Lemma tot_default : forall B (w : cterm -> M cstmt) ty, (forall cont, tot B (w cont)) -> tot B (default_compile w ty).
Proof. intros B w ty H. unfold default_compile. auto with tot. Qed.
#[export] Hint Resolve tot_share tot_default : tot.

(* the repaired placement of a continuation under binders: the fresh covariable is not one of the binders *)
Lemma tot_guard : forall B binders (w : cterm -> M cstmt) lty cont,
  (forall c, tot B (w c)) -> (binders <> [] -> exists ty0, lty = Some ty0) -> incl binders B ->
  tot B (guard_capture false binders w lty cont).
Proof.
  intros B binders w lty cont Hw Hty Hb. unfold guard_capture. destruct (captures binders cont) eqn:Ecap; [|apply Hw].
  destruct Hty as [ty0 ->]; [intros ->; discriminate Ecap|].
  simpl. apply tot_bind; [apply tot_lift|]. intros ty. intros st Hst.
  destruct (tot_fresh_in_vars B "a" st Hst) as [a [sta [Ea Hsta]]].
  destruct (fresh_in_vars_inv _ _ _ _ Ea) as [Hfresh _].
  assert (Hc : captures binders (CXVar CCns (new_id a) (compile_ty ty)) = false).
  { unfold captures. simpl.
    match goal with |- ?e = false => destruct e eqn:E; [|reflexivity] end. exfalso.
    apply existsb_exists in E. destruct E as [v [Hv E]]. rewrite orb_false_r in E. apply String.eqb_eq in E. subst v.
    apply Hfresh. apply Hst. apply Hb. exact Hv. }
  destruct (Hw (CXVar CCns (new_id a) (compile_ty ty)) sta Hsta) as [s0 [st' [Es Hst']]].
  eexists _, st'. split; [|exact Hst'].
  unfold mbind. unfold fresh_covar. rewrite Ea. rewrite Hc. rewrite Es. reflexivity.
Qed.

Section Total.
  Variable p : fcprog.
  Variables data codata : list ctydecl.
  Variable cdt : list ctydecl.      (* CompileState.codata_types *)
  Variable cur : string.
  Variable B : list string.
  Notation tot := (tot B).
  Notation tg := (tg p data codata).
  Notation tg_args := (tg_args p data codata).
  Notation tg_clauses := (tg_clauses p data codata).
  Notation tg_coclauses := (tg_coclauses p data codata).
  Notation wc' := (wc cdt cur false).
  Notation cmp' := (cmp cdt cur false).

  Definition TW (t : fterm) : Prop := forall G cont, tg G t = true -> tot (wc' t cont).
  Definition TC (t : fterm) : Prop := forall G ty, tg G t = true -> tot (cmp' t ty).

  Lemma has_ty_some : forall t ty, has_ty t ty = true -> exists ty0, fterm_type t = Some ty0.
  Proof. intros t ty H. unfold has_ty, tyo in H. destruct (fterm_type t) as [ty0|]; [eauto | discriminate]. Qed.
  Lemma tot_expect : forall ty0, tot (mlift (expect_ty (Some ty0))).
  Proof. intros ty0. apply tot_lift. Qed.
  Hint Resolve tot_expect : tot.

  Lemma tot_args : forall args, Forall TC args -> forall G sig, tg_args G args sig = true ->
    tot (subst_with (fun y => cmp' y) args).
  Proof.
    intros args H G. induction H as [|y r Hy Hr IH]; intros sig Hg; simpl; [apply tot_ret|].
    destruct sig as [|b sr]; [discriminate|]. rewrite tg_args_cons in Hg. apply andb_prop in Hg. destruct Hg as [Hg1 Hg2].
    apply tot_bind; [|eauto with tot].
    unfold Fun2CoreTyGuard.tg_arg in Hg1. unfold compile_arg. destruct (cbchi b).
    - apply andb_prop in Hg1 as [[[Hnc Hgy]%andb_prop Hh]%andb_prop _]. destruct (has_ty_some _ _ Hh) as [ty0 Ety].
      assert (Hgen : tot (dom ty <- mlift (expect_ty (fterm_type y)); dom p0 <- cmp' y (compile_ty ty); mret (CProducer p0)))
        by (rewrite Ety; eauto with tot).
      destruct y; try exact Hgen. destruct chi as [[|]|]; try exact Hgen. discriminate.
    - destruct y; try discriminate. destruct chi as [[|]|]; try discriminate.
      apply andb_prop in Hg1 as [[Hv _]%andb_prop _].
      apply var_ok_look in Hv. destruct Hv as [ty0 [-> _]]. eauto with tot.
  Qed.
  Lemma tot_clauses : forall cls, Forall (fun c => TW (clause_body c)) cls -> forall G ty xs cont,
    tg_clauses G ty cls xs = true -> tot (clauses_with (fun b => wc' b) cont cls).
  Proof.
    intros cls H G ty. induction H as [|c r Hc Hr IH]; intros xs cont Hg; simpl; [apply tot_ret|].
    destruct xs as [|sg xr]; [discriminate|]. rewrite tg_clauses_cons in Hg. apply andb_prop in Hg. destruct Hg as [Hg1 Hg2].
    destruct c as [pl x names ctx body]. unfold Fun2CoreTyGuard.tg_clause in Hg1.
    apply andb_prop in Hg1 as [[_ Hgb]%andb_prop _].
    unfold compile_clause. eauto 6 with tot.
  Qed.
  Lemma tot_coclauses : forall cls, Forall (fun c => TW (clause_body c)) cls -> forall G xs,
    tg_coclauses G cls xs = true -> tot (coclauses_with (fun b => wc' b) cls).
  Proof.
    intros cls H G. induction H as [|c r Hc Hr IH]; intros xs Hg; simpl; [apply tot_ret|].
    destruct xs as [|sg xr]; [discriminate|]. rewrite tg_coclauses_cons in Hg. apply andb_prop in Hg. destruct Hg as [Hg1 Hg2].
    destruct c as [pl x names ctx body]. unfold Fun2CoreTyGuard.tg_coclause in Hg1.
    apply andb_prop in Hg1 as [[[_ Hsig]%andb_prop _]%andb_prop Hgb].
    destruct (split_last (cxargs sg)) as [[pre last]|]; [|discriminate].
    apply andb_prop in Hsig as [[_ Hh]%andb_prop _]. destruct (has_ty_some _ _ Hh) as [ty0 Ety].
    apply tot_bind; [|eauto with tot].
    unfold compile_coclause. rewrite Ety. apply tot_bind; [auto with tot|]. intros ty. cbv zeta. eauto with tot.
  Qed.

  Lemma tot_op : forall a o b G, TC a -> TC b -> tg G (FOp a o b) = true -> tot (cmp_op (cmp' a CI64) o (cmp' b CI64)).
  Proof.
    intros a o b G Ha Hb Hg. rewrite tg_op in Hg. apply andb_prop in Hg as [[[H1 H2]%andb_prop _]%andb_prop _]. unfold cmp_op.
    eauto with tot.
  Qed.

  (* the binders of a sub-term are among those of the term, hence in B *)
  Ltac sb Hb := let z := fresh "z" in let Hz := fresh "Hz" in
    intros z Hz; apply Hb; simpl; rewrite ?in_app_iff; tauto.
  (* the induction hypotheses for sub-term lists, once the binders of the sub-terms are known to be in B *)
  Lemma Forall_bnd : forall (P : fterm -> Prop) args,
    Forall (fun a => incl (bnd a) B -> P a) args -> incl (flat_map bnd args) B -> Forall P args.
  Proof.
    intros P args H Hb. rewrite Forall_forall in *. intros a Ha. apply (H a Ha).
    intros z Hz. apply Hb. apply in_flat_map. exists a. split; assumption.
  Qed.
  Lemma Forall_cl_bnd : forall (P : fterm -> Prop) cls,
    Forall (fun c => incl (bnd (clause_body c)) B -> P (clause_body c)) cls -> incl (flat_map cl_bnd cls) B ->
    Forall (fun c => P (clause_body c)) cls.
  Proof.
    intros P cls H Hb. rewrite Forall_forall in *. intros c Hc. apply (H c Hc).
    intros z Hz. apply Hb. apply in_flat_map. exists c. split; [exact Hc|]. destruct c. apply in_or_app. right. exact Hz.
  Qed.

  (* the annotation that compile / compile_with_cont of a constructor, a new and a label read *)
  Lemma tg_ann : forall G t, tg G t = true ->
    match t with FCtor _ _ ty | FNew _ ty | FLabel _ _ ty => exists ty0, ty = Some ty0 | _ => True end.
  Proof.
    intros G t Hg. destruct t; try exact I.
    - rewrite tg_ctor in Hg. unfold tyo in Hg. simpl in Hg. destruct ty as [ty1|]; [eauto | discriminate].
    - rewrite tg_new in Hg. unfold tyo in Hg. simpl in Hg. destruct ty as [ty1|]; [eauto | discriminate].
    - rewrite tg_label in Hg. destruct ty as [ty1|]; [eauto | discriminate].
  Qed.

  (* the two hypotheses of [wc_cmp_ind] *)
  Lemma tc_stmt : forall t, stmt_form t = true -> TW t -> TC t.
  Proof. intros t Hs HW G ty Hg. rewrite (cmp_stmt_form _ _ _ _ _ Hs). apply tot_default. intros cont. exact (HW G cont Hg). Qed.
  Lemma tw_value : forall t, value_form t = true -> TC t -> TW t.
  Proof.
    (* the value forms ignore the type argument of `compile`: any type serves to instantiate HC *)
    intros t Hv HC G cont Hg. pose proof (HC G CI64 Hg) as Hc. rewrite cmp_unfold in Hc. pose proof (tg_ann G t Hg) as Ha.
    rewrite wc_unfold. destruct t; try discriminate Hv.
    - rewrite tg_var in Hg. apply var_ok_look in Hg. destruct Hg as [ty0 [-> _]]. unfold wc_var.
      apply tot_bind; [apply tot_expect | intros; apply tot_ret].
    - apply tot_ret.
    - unfold wc_op. auto with tot.
    - destruct Ha as [ty0 ->]. unfold wc_ctor. auto with tot.
    - destruct Ha as [ty0 ->]. unfold wc_new. auto with tot.
    - destruct Ha as [ty0 ->]. unfold wc_label. auto with tot.
  Qed.

  Theorem total_all : forall t, (incl (bnd t) B -> TW t) /\ (incl (bnd t) B -> TC t).
  Proof.
    apply wc_cmp_ind.
    - intros t Hv HC Hb. exact (tw_value t Hv (HC Hb)).
    - intros t Hs HW Hb. exact (tc_stmt t Hs (HW Hb)).
    - intros v ty chi _ G ty0 Hg. rewrite cmp_unfold. rewrite tg_var in Hg. apply var_ok_look in Hg. destruct Hg as [ty1 [-> _]].
      unfold cmp_var. auto with tot.
    - intros n _ G ty _. rewrite cmp_unfold. apply tot_ret.
    - intros a o b Ca Cb Hb G ty Hg. rewrite cmp_unfold. eapply tot_op; [apply Ca; sb Hb | apply Cb; sb Hb | exact Hg].
    - intros s a b t1 t2 ty Ca Cb W1 W2 Hb G cont Hg. rewrite wc_unfold. rewrite tg_ifc in Hg.
      specialize (Ca ltac:(sb Hb)). specialize (W1 ltac:(sb Hb)). specialize (W2 ltac:(sb Hb)).
      apply andb_prop in Hg as [[[[[[Hg1 _]%andb_prop Hgb]%andb_prop Hg2]%andb_prop Hg3]%andb_prop _]%andb_prop _].
      unfold wc_ifc. apply tot_bind; [destruct (cont_is_small cont); auto with tot|]. intros cont1.
      apply tot_bind; [eauto|]. intros a0. apply tot_bind; [|eauto 6 with tot].
      destruct b as [b'|]; [|apply tot_ret]. apply andb_prop in Hgb. destruct Hgb as [Hgb _].
      specialize (Cb ltac:(sb Hb)). eauto with tot.
    - intros nl a next ty Ca Wn Hb G cont Hg. rewrite wc_unfold. rewrite tg_print in Hg.
      specialize (Ca ltac:(sb Hb)). specialize (Wn ltac:(sb Hb)).
      apply andb_prop in Hg as [[[Hg1 _]%andb_prop Hg2]%andb_prop _].
      unfold wc_print. eauto with tot.
    - intros v vty bound body ty W1 C1 W2 Hb G cont Hg. rewrite wc_unfold. rewrite tg_let in Hg.
      specialize (W1 ltac:(sb Hb)). specialize (C1 ltac:(sb Hb)). specialize (W2 ltac:(sb Hb)).
      apply andb_prop in Hg as [[[[Hg1 _]%andb_prop _]%andb_prop Hg2]%andb_prop Hsame].
      apply tot_guard.
      + intros c. unfold wc_let. apply tot_bind; [eauto|]. intros body0.
        destruct (ty_is_codata cdt (compile_ty vty)); eauto with tot.
      + intros _. unfold same_ty in Hsame. destruct ty as [ty0|]; [eauto | discriminate].
      + intros z [<-|[]]. apply Hb. simpl. left. reflexivity.
    - intros f args ret HA Hb G cont Hg. apply Forall_bnd in HA; [|exact Hb]. rewrite wc_unfold. rewrite tg_call in Hg.
      apply andb_prop in Hg. destruct Hg as [_ Hg].
      destruct (ffind_def p f) as [d|]; [|discriminate]. destruct ret as [r|]; [|discriminate].
      apply andb_prop in Hg as [[Hg _]%andb_prop _].
      unfold wc_call. eauto using tot_args with tot.
    - intros x args ty HA Hb G ty0 Hg. apply Forall_bnd in HA; [|exact Hb]. rewrite cmp_unfold.
      destruct (tg_ann G _ Hg) as [ty1 ->]. rewrite tg_ctor in Hg. unfold tyo in Hg. simpl in Hg.
      destruct (compile_ty ty1) as [|n]; [discriminate|].
      destruct (find_decl data n) as [d|]; [|discriminate]. destruct (find_cxtor d (new_id x)) as [sg|]; [|discriminate].
      unfold cmp_ctor. eauto using tot_args with tot.
    - intros scrut x targs args ty Ws HA Hb G cont Hg. specialize (Ws ltac:(sb Hb)). apply Forall_bnd in HA; [|sb Hb].
      rewrite wc_unfold. rewrite tg_dtor in Hg. apply andb_prop in Hg. destruct Hg as [Hgs Hg].
      unfold tyo in Hg. destruct (fterm_type scrut) as [sty|] eqn:Est; [|discriminate]. simpl in Hg.
      destruct (compile_ty sty) as [|n]; [discriminate|].
      destruct (find_decl codata n) as [d|]; [|discriminate]. destruct (find_cxtor d (new_id x)) as [sg|]; [|discriminate].
      destruct (split_last (cxargs sg)) as [[pre last]|]; [|discriminate].
      apply andb_prop in Hg as [[Hg _]%andb_prop _].
      unfold wc_dtor. eauto using tot_args with tot.
    - intros scrut targs cls ty Ws HB Hb G cont Hg. specialize (Ws ltac:(sb Hb)). apply (Forall_cl_bnd TW) in HB; [|sb Hb].
      rewrite wc_unfold. rewrite tg_case in Hg. apply andb_prop in Hg. destruct Hg as [Hgs Hg].
      unfold tyo in Hg. destruct (fterm_type scrut) as [sty|] eqn:Est; [|discriminate]. simpl in Hg.
      destruct (compile_ty sty) as [|n]; [discriminate|]. destruct (find_decl data n) as [d|]; [|discriminate].
      apply tot_guard.
      + intros c. unfold wc_case. apply tot_bind; [destruct (Nat.leb (List.length cls) 1 || cont_is_small c); auto with tot|].
        intros cont1. eauto using tot_clauses with tot.
      + intros Hne. destruct cls as [|[pl x names ctx body] r]; [contradiction Hne; reflexivity|].
        destruct (ctxtors d) as [|sg xr]; [discriminate|]. rewrite tg_clauses_cons in Hg. apply andb_prop in Hg. destruct Hg as [Hg1 _].
        unfold Fun2CoreTyGuard.tg_clause in Hg1. apply andb_prop in Hg1. destruct Hg1 as [_ Hsame].
        unfold same_ty in Hsame. destruct ty as [ty0|]; [eauto | discriminate].
      + intros z Hz. apply Hb. simpl. apply in_or_app. right. apply in_flat_map in Hz. destruct Hz as [[pl x names ctx body] [Hc Hz]].
        apply in_flat_map. exists (FClause pl x names ctx body). split; [exact Hc | apply in_or_app; left; exact Hz].
    - intros cls ty HB Hb G ty0 Hg. apply (Forall_cl_bnd TW) in HB; [|exact Hb]. rewrite cmp_unfold.
      destruct (tg_ann G _ Hg) as [ty1 ->]. rewrite tg_new in Hg. unfold tyo in Hg. simpl in Hg.
      destruct (compile_ty ty1) as [|n]; [discriminate|]. destruct (find_decl codata n) as [d|]; [|discriminate].
      unfold cmp_new. eauto using tot_coclauses with tot.
    - intros l t ty W Hb G ty0 Hg. specialize (W ltac:(sb Hb)). rewrite cmp_unfold.
      destruct (tg_ann G _ Hg) as [ty1 ->]. rewrite tg_label in Hg. apply andb_prop in Hg as [[_ Hg]%andb_prop _].
      unfold cmp_label. apply tot_bind; [auto with tot|]. intros ty'. cbv zeta. eauto with tot.
    - intros l t ty W Hb G cont Hg. specialize (W ltac:(sb Hb)). rewrite wc_unfold. rewrite tg_goto in Hg.
      apply andb_prop in Hg as [[Hv _]%andb_prop Hgt].
      apply var_ok_look in Hv. destruct Hv as [ty0 [Et _]]. unfold wc_goto. rewrite Et. eauto with tot.
    - intros a ty Ca Hb G cont Hg. specialize (Ca ltac:(sb Hb)). rewrite wc_unfold. rewrite tg_exit in Hg.
      apply andb_prop in Hg as [[Hga _]%andb_prop Han].
      destruct ty as [ty1|]; [|discriminate]. unfold wc_exit. eauto with tot.
    - intros t W Ca. split; intros Hb G; [intros cont | intros ty]; intros Hg.
      + rewrite wc_unfold. apply (W Hb G cont). rewrite tg_paren in Hg. exact Hg.
      + rewrite cmp_unfold. apply (Ca Hb G ty). rewrite tg_paren in Hg. exact Hg.
  Qed.
End Total.

(* the body of a guarded definition: the initial state records its binders ([tg_bnd_used]) *)
Lemma run_def_body_total : forall X p d ul bty (k : cty -> M X),
  tg p (cdata_of p) (ccodata_of p) (compile_ctx (fdctx d)) (fdbody d) = true -> fterm_type (fdbody d) = Some bty ->
  (forall ty, tot (bnd (fdbody d)) (k ty)) ->
  exists r, run_def_body (ccodata_of p) d ul k = Ok r.
Proof.
  intros X p d ul bty k Htg Ebty Hk. unfold run_def_body. rewrite Ebty.
  destruct (Hk (compile_ty bty) (mkst (used_binders (fdbody d) (fvars (fdctx d))) ul [])) as [x [st' [E _]]]; [|eauto].
  intros x Hx. eapply (tg_bnd_used p (cdata_of p) (ccodata_of p)); eassumption.
Qed.
Lemma compile_main_total : forall p d ul bty,
  tg p (cdata_of p) (ccodata_of p) (compile_ctx (fdctx d)) (fdbody d) = true -> fterm_type (fdbody d) = Some bty ->
  exists g ul', compile_main false d (ccodata_of p) ul = Ok (g, ul').
Proof.
  intros p d ul bty Htg Ebty. unfold compile_main.
  destruct (run_def_body_total _ p d ul bty
              (fun ty => dom x <- fresh_var;
                         wc (ccodata_of p) (fdname d) false (fdbody d) (CMu CCns (new_id x) (CExit (CXVar CPrd (new_id x) ty) ty) ty))
              Htg Ebty) as [[body st] E]; [|rewrite E; simpl; eauto].
  intros ty. apply tot_bind; [apply tot_fresh_var|]. intros x.
  eapply (proj1 (total_all p (cdata_of p) (ccodata_of p) (ccodata_of p) (fdname d) _ (fdbody d)) (incl_refl _)). exact Htg.
Qed.
Lemma compile_def_total : forall p d ul bty,
  tg p (cdata_of p) (ccodata_of p) (compile_ctx (fdctx d)) (fdbody d) = true -> fterm_type (fdbody d) = Some bty ->
  exists g ul', compile_def false d (ccodata_of p) ul = Ok (g, ul').
Proof.
  intros p d ul bty Htg Ebty. unfold compile_def.
  destruct (run_def_body_total _ p d ul bty
              (fun ty => dom a <- fresh_covar;
                         dom body <- wc (ccodata_of p) (fdname d) false (fdbody d) (CXVar CCns (new_id a) ty);
                         mret (a, body))
              Htg Ebty) as [[[a body] st] E]; [|rewrite E; simpl; eauto].
  intros ty. apply tot_bind; [apply tot_fresh_covar|]. intros a. apply tot_bind; [|intros; apply tot_ret].
  eapply (proj1 (total_all p (cdata_of p) (ccodata_of p) (ccodata_of p) (fdname d) _ (fdbody d)) (incl_refl _)). exact Htg.
Qed.

(* the definitions that come first (fix f929eb7): when main is called, the entry point and main compiled by compile_def *)
Lemma compile_main_group_total : forall p d ul,
  def_tyguard p (cdata_of p) (ccodata_of p) d = true -> fdname d = "main" -> ffind_def p (fdname d) = Some d ->
  exists g ul', compile_main_group false (calls_main_prog p) d (ccodata_of p) ul = Ok (g, ul').
Proof.
  intros p d ul Hd Em Hfind. unfold def_tyguard in Hd. rewrite Em in Hd. cbn [String.eqb Ascii.eqb Bool.eqb] in Hd.
  apply andb_prop in Hd as [[[Hnd Hctd]%andb_prop Htg]%andb_prop [Hret Hcalled]%andb_prop].
  assert (Hbty : exists bty, fterm_type (fdbody d) = Some bty).
  { unfold has_ty, tyo in Hret; destruct (fterm_type (fdbody d)) as [bty|]; eauto; discriminate. }
  destruct Hbty as [bty Ebty].
  unfold compile_main_group. rewrite andb_true_r. destruct (calls_main_prog p) eqn:Hcm.
  - cbn [negb orb] in Hcalled. apply ceq_ty in Hcalled.
    destruct (fresh_name ul "main") as [nm ul1].
    assert (Htge : tg p (cdata_of p) (ccodata_of p) (compile_ctx (fdctx (entry_fdef d nm))) (fdbody (entry_fdef d nm)) = true).
    { refine (entry_tg p _ _ d nm Hnd Hctd Hfind Em Hcm _). rewrite Hcalled. reflexivity. }
    destruct (compile_main_total p (entry_fdef d nm) ul1 (fdret d) Htge eq_refl) as [e [ule Ee]]. rewrite Ee. cbn [rbind snd fst].
    destruct (compile_def_total p d ule bty Htg Ebty) as [m [ulm Em']]. rewrite Em'. cbn [rbind]. eauto.
  - eapply compile_main_total; eassumption.
Qed.

Lemma compile_defs_total : forall p defs ul front back,
  (forall d, In d defs -> def_tyguard p (cdata_of p) (ccodata_of p) d = true) ->
  (forall d, In d defs -> ffind_def p (fdname d) = Some d) ->
  exists res, compile_defs false (calls_main_prog p) defs (ccodata_of p) ul front back = Ok res.
Proof.
  intros p. induction defs as [|d r IH]; intros ul front back Hg Hf; simpl; [eauto|].
  pose proof (Hg d (or_introl eq_refl)) as Hd.
  destruct (String.eqb (fdname d) "main") eqn:Em.
  - apply String.eqb_eq in Em.
    destruct (compile_main_group_total p d ul Hd Em (Hf d (or_introl eq_refl))) as [g [ul' E]]. rewrite E. simpl.
    apply IH; intros d0 Hd0; [apply Hg | apply Hf]; right; exact Hd0.
  - unfold def_tyguard in Hd. rewrite Em in Hd.
    apply andb_prop in Hd as [[_ Htg]%andb_prop Hret].
    assert (Hbty : exists bty, fterm_type (fdbody d) = Some bty).
    { apply andb_prop in Hret; destruct Hret as [Hret _];
      unfold has_ty, tyo in Hret; destruct (fterm_type (fdbody d)) as [bty|]; eauto; discriminate. }
    destruct Hbty as [bty Ebty].
    destruct (compile_def_total p d ul bty Htg Ebty) as [g [ul' E]]. rewrite E. simpl.
    apply IH; intros d0 Hd0; [apply Hg | apply Hf]; right; exact Hd0.
Qed.

Theorem fun2core_total_guarded : forall p, prog_tyguard p = true -> exists c, compile_prog p = Ok c.
Proof.
  intros p Hg. unfold prog_tyguard in Hg. apply andb_prop in Hg. destruct Hg as [Hd Hg]. rewrite forallb_forall in Hg.
  assert (Hnd : NoDup (map fdname (fcpdefs p))).
  { unfold decls_tyguard in Hd. apply andb_prop in Hd. destruct Hd as [_ Hd]. apply nodup_str_nd0. exact Hd. }
  unfold compile_prog, compile_prog_gen. fold (ccodata_of p).
  destruct (compile_defs_total p (fcpdefs p) (map fdname (fcpdefs p)) [] [] Hg (fun d Hd0 => find_def_nodup p d Hnd Hd0)) as [res E].
  rewrite E. simpl. eauto.
Qed.
