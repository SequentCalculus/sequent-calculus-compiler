(* Proof/Fun2CoreMainCalled.v (property C02): a program whose `main` lies in the first-order integer fragment [islf]
   of C02_fun2core_correct_partial AND is called by another definition (so compile_prog compiles main with a
   return continuation and starts at the entry point main0: the repair f929eb7 of /repo).
   C02_fun2core_correct_partial has the hypothesis `calls_main_prog p = false` (its simulation [islf_sim] of
   Proof/Fun2CoreSim.v runs main's body against a CLOSED mu~ continuation in an environment of integers only; with a
   called main the body runs against the covariable a0 bound to a closure).  Such programs are covered by
   C02_fun2core_correct_fragment2 instead, when all their definitions satisfy prog_guard: here the witness, by the
   THEOREM. *)
From Coq Require Import List ZArith NArith String Bool.
From SCC Require Import Lang.FunSyn Lang.CoreSyn Sem.AxSem Sem.CoreSem Sem.FunSem Model.Fun2Core Model.Fun2CoreGuard
     Proof.Fun2CoreProof Proof.Fun2CoreInv Proof.Fun2CoreRel Proof.Fun2CoreProg.
Import ListNotations.
Local Open Scope string_scope.
Local Open Scope Z_scope.

(* def helper(k: i64): i64 { main(k) }
   def main(n: i64): i64 { println_i64(n + 1); if n == 0 { 1 } else { n * 2 } } *)
Definition islf_main_called_witness : fcprog :=
  mkfcprog [] []
    [mkfdef "helper" [mkfb "k" FPrd FI64] FI64
       (FCall "main" [FVar "k" (Some FI64) (Some FPrd)] (Some FI64));
     mkfdef "main" [mkfb "n" FPrd FI64] FI64
       (FPrint true (FOp (FVar "n" (Some FI64) (Some FPrd)) FSum (FLit 1))
          (FIfC FEq (FVar "n" (Some FI64) (Some FPrd)) None
             (FLit 1)
             (FOp (FVar "n" (Some FI64) (Some FPrd)) FProd (FLit 2))
             (Some FI64))
          (Some FI64))].

Lemma islf_main_called_witness_facts :
  main_in_fragment islf_main_called_witness = true /\ calls_main_prog islf_main_called_witness = true /\
  prog_guard islf_main_called_witness = true /\ NoDup (map fdname (fcpdefs islf_main_called_witness)) /\
  compile_prog islf_main_called_witness = Ok (compiled_or_empty islf_main_called_witness) /\
  run_core 200 (compiled_or_empty islf_main_called_witness) [4] = run_fun 200 islf_main_called_witness [4] /\
  run_fun 200 islf_main_called_witness [4] = ([(true, 5)], OExit 8) /\
  map cdname (cpdefs (compiled_or_empty islf_main_called_witness)) = [new_id "main0"; new_id "main"; new_id "helper"].
Proof.
  assert (Hf : run_fun 200 islf_main_called_witness [4] = ([(true, 5)], OExit 8)) by (vm_compute; reflexivity).
  split; [vm_compute; reflexivity|]. split; [vm_compute; reflexivity|]. split; [vm_compute; reflexivity|].
  split; [repeat constructor; simpl; intuition discriminate|].
  split; [vm_compute; reflexivity|]. rewrite Hf.
  split; [vm_compute; reflexivity|]. split; [reflexivity | vm_compute; reflexivity].
Qed.

Lemma islf_main_called_witness_simulated : forall (c : cprog) (args : list Z) (n : nat) (o : obs),
  compile_prog islf_main_called_witness = Ok c ->
  run_fun n islf_main_called_witness args = o -> final o ->
  exists m, run_core m c args = o.
Proof.
  intros c args n o Hc Hr Hf.
  destruct islf_main_called_witness_facts as (_ & _ & Hg & Hnd & _).
  exact (fun2core_correct_fragment_lemma islf_main_called_witness c args n o Hc Hnd Hg Hr Hf).
Qed.
