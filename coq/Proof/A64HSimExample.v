(* C07, heap statements: non-vacuity of a64_codegen_simulates on the example program of Proof/AxHeapExample.v (lists -
   let / switch -, a five-field record in two chained blocks, shared and dropped objects, a closure that captures an
   integer, calls between two definitions): all hypotheses evaluated, the theorem applied, both machines computed. *)
From Coq Require Import List ZArith NArith String Bool Lia.
From SCC Require Import Base.Sexp Lang.AxSyn Sem.AxSem Sem.AxHeap Model.Backend Model.A64 Sem.A64Sem Sem.A64Wf
     Model.Linearize Model.LinCheck Proof.SimFrag Proof.A64SimAddr Proof.X86HAnn Proof.A64HSimTop Proof.A64HSimCor
     Proof.AxHeapExample.
From SCC Require Model.Heap Proof.AxHeapTyping Proof.X86HSimExample.
Import ListNotations.
Open Scope Z_scope.

Definition hxa_code : list acode := match a64_compile hx_lin 0 with Ok (cs, _, _) => cs | Err _ => [] end.

(* evaluated once, see Proof/A64HSimExampleW.v *)
Definition hx_lin_v : prog := Eval vm_compute in hx_lin.
Definition hxa_code_v : list acode := Eval vm_compute in hxa_code.
Lemma hx_lin_eq : hx_lin = hx_lin_v.
Proof. vm_compute. reflexivity. Qed.
Lemma hxa_compiled : exists lc', a64_compile hx_lin 0 = Ok (hxa_code_v, 2%nat, lc').
Proof. rewrite hx_lin_eq. eexists. vm_compute. reflexivity. Qed.
Lemma hxa_code_eq : hxa_code = hxa_code_v.
Proof. destruct hxa_compiled as [lc' E]. unfold hxa_code. rewrite E. reflexivity. Qed.

Lemma hxa_hypotheses :
  lin_check_prog hx_lin = true /\ ann_check_prog hx_lin = true /\ AxHeapTyping.entry_ext hx_lin = true /\
  plain_names hx_lin = true /\ plain_types hx_lin = true /\ lits_i64 hx_lin = true /\ tags_i64 hx_lin = true /\
  (exists lc', a64_compile hx_lin 0 = Ok (hxa_code, 2%nat, lc')) /\ asm_wf hxa_code = None /\ code_small hxa_code = true /\
  args_i64 [3; 100] = true /\ X86HSimExample.fits_run 2000 hx_lin [3; 100] = true.
Proof.
  set (fuel := 2000%nat).
  pose proof hxa_compiled as C. rewrite hxa_code_eq. rewrite hx_lin_eq in *.
  repeat apply conj; try exact C; vm_compute; reflexivity.
Qed.

(* both machines, evaluated: three iterations, each allocating, sharing, loading and dropping objects; the
   closure adds the captured 100 *)
Lemma hxa_runs :
  run_linear 2000 hx_lin [3; 100] = ([(true, 106)], OExit 106) /\
  fst (run_a64 20 2000 hxa_code [3; 100]) = ([(true, 106)], OExit 106).
Proof. rewrite hxa_code_eq, hx_lin_eq. split; vm_compute; reflexivity. Qed.

(* the theorem applies: there are step counts for which the AArch64 run gives the observation of the linear machine *)
Lemma hxa_simulated : exists outer inner, fst (run_a64 outer inner hxa_code [3; 100]) = run_linear 2000 hx_lin [3; 100].
Proof.
  apply (a64_codegen_simulates_checked _ _ 2%nat _ _ hxa_hypotheses); [reflexivity|rewrite (proj1 hxa_runs); discriminate].
Qed.
