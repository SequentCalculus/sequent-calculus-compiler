(* C14: labels of the generic code generator (Model/Backend.v), for every back end whose emitters
   obey the label discipline [labels_ok]:
   - only b_label defines a label handed in by the generic part; the memory operations (erase, share,
     store, load) define `lab<k>` for pairwise distinct k in (lc, lc'] and reference only those;
   - every other emitter defines nothing and references at most the label it is given.
   Results ([code_statement_defs], [translate_defs]): the labels defined in the code of
   `translate` are the texts of a duplicate-free list of ABSTRACT labels (LabelStrings.gl): one
   definition label per definition, and generated labels whose numbers lie in (lc, lc'] - the
   counter is monotone and every number is used by one statement only.  Uniqueness of the TEXTS
   follows where the printing is injective ([translate_labels_unique]). *)
From Coq Require Import List NArith String Ascii Bool Lia Permutation.
From SCC Require Import Base.Sexp Lang.AxSyn Model.ParMoves Model.Backend Sem.LabelGuard Proof.LinBasics Proof.StringFacts Proof.LabelStrings Proof.BackendInv.
Import ListNotations.
Local Open Scope string_scope.
Local Open Scope list_scope.

Lemma NoDup_app_l {A} (l1 l2 : list A) : NoDup (l1 ++ l2) -> NoDup l1.
Proof. induction l1 as [|a l1 IH]; intros H; [constructor|]. inversion H; subst. constructor; [intros X; apply H2, in_or_app; left; exact X|auto]. Qed.
Lemma NoDup_map_inj_in {A C} (f : A -> C) (l : list A) :
  (forall x y, In x l -> In y l -> f x = f y -> x = y) -> NoDup l -> NoDup (map f l).
Proof.
  induction l as [|a l IH]; intros I N; [constructor|]. inversion N as [|? ? Ha N']; subst. cbn [map]. constructor.
  - intros H. apply in_map_iff in H as (y & E & Hy). apply Ha. rewrite (I a y); [exact Hy|left; reflexivity|right; exact Hy|symmetry; exact E].
  - apply IH; [|exact N']. intros x y Hx Hy. apply I; right; assumption.
Qed.

Lemma nodup_strb_NoDup l : nodup_strb l = true -> NoDup l.
Proof.
  induction l as [|x r IH]; intros H; [constructor|]. cbn in H. apply andb_true_iff in H as [H1 H2].
  constructor; [|apply IH; exact H2]. intros I. apply negb_true_iff in H1.
  assert (existsb (String.eqb x) r = true) by (apply existsb_exists; exists x; split; [exact I|apply String.eqb_refl]). congruence.
Qed.
Lemma mem_strb_In x l : mem_strb x l = true -> In x l.
Proof. unfold mem_strb. intros H. apply existsb_exists in H as (y & Hy & E). apply String.eqb_eq in E. subst. exact Hy. Qed.

Lemma rbind_inv {X Y} (e : res X) (f : X -> res Y) v : rbind e f = Ok v -> exists x, e = Ok x /\ f x = Ok v.
Proof. destruct e as [x|m]; cbn; intros H; [exists x; split; [reflexivity|exact H]|discriminate]. Qed.

Ltac rstep H :=
  match type of H with
  | rbind _ _ = Ok _ =>
      let x := fresh "x" in let E := fresh "E" in apply rbind_inv in H; destruct H as (x & E & H)
  | (let '(_, _) := ?p in _) = Ok _ => is_var p; destruct p as [? ?]
  | Err _ = Ok _ => discriminate H
  end.
Ltac rinv H := repeat rstep H.

Lemma stmt_check_switch fcall fsw v t cls :
  stmt_check fcall fsw (Switch v t cls) = fsw t (map cl_xtor cls) && forallb (fun c => stmt_check fcall fsw (cl_body c)) cls.
Proof.
  cbn [stmt_check]. f_equal. induction cls as [|[[x cx] b] r IH]; [reflexivity|]. cbn [forallb cl_body snd]. rewrite IH. reflexivity.
Qed.
Lemma stmt_check_create fcall fsw v t e cls n :
  stmt_check fcall fsw (Create v t e cls n)
  = fsw t (map cl_xtor cls) && forallb (fun c => stmt_check fcall fsw (cl_body c)) cls && stmt_check fcall fsw n.
Proof.
  cbn [stmt_check]. f_equal. f_equal. induction cls as [|[[x cx] b] r IH]; [reflexivity|]. cbn [forallb cl_body snd]. rewrite IH. reflexivity.
Qed.

Lemma type_label_pr t k : type_label t k = pr (GTL (tyS t) k).
Proof. reflexivity. Qed.
Lemma clause_label_pr t k x : type_label t k +++ "_" +++ show_ident x = pr (GCL (tyS t) k (show_ident x)).
Proof. unfold type_label. cbn [pr]. fold (tyS t). rewrite !sapp_assoc. reflexivity. Qed.

Lemma clause_label_pr' t k x : type_label t k +++ String "_" (show_ident x) = pr (GCL (tyS t) k (show_ident x)).
Proof. apply clause_label_pr. Qed.

Section LabelGen.
Context {Code Temp : Type} (B : backend Code Temp).
Variables (cdefs crefs : Code -> list string).   (* labels defined / referenced by one instruction *)
Definition defs (c : list Code) : list string := flat_map cdefs c.
Definition refs (c : list Code) : list string := flat_map crefs c.
Lemma defs_app a b : defs (a ++ b) = defs a ++ defs b.
Proof. apply flat_map_app. Qed.
Lemma refs_app a b : refs (a ++ b) = refs a ++ refs b.
Proof. apply flat_map_app. Qed.
Definition plain (c : list Code) : Prop := defs c = [] /\ refs c = [].
(* what the memory operations of a back end do with the label counter *)
Definition labs_ok (lc : N) (c : list Code) (lc' : N) : Prop :=
  (lc <= lc')%N /\
  exists ks, defs c = map (fun k => pr (GLab k)) ks /\ NoDup ks /\ (forall k, In k ks -> (lc < k <= lc')%N) /\
             incl (refs c) (defs c).
Definition refs_only (c : list Code) (l : string) : Prop := defs c = [] /\ incl (refs c) [l].

Record labels_ok : Prop := {
  lo_label : forall l, cdefs (b_label B l) = [l] /\ crefs (b_label B l) = [];
  lo_mark : forall c, plain (b_mark B c);
  lo_jump : forall t, plain (b_jump B t);
  lo_jump_label : forall l, refs_only (b_jump_label B l) l;
  lo_jump_label_fixed : forall l, refs_only (b_jump_label_fixed B l) l;
  lo_jcc2 : forall s a b l, refs_only (b_jcc2 B s a b l) l;
  lo_jcc1 : forall s a l, refs_only (b_jcc1 B s a l) l;
  lo_load_immediate : forall t i, plain (b_load_immediate B t i);
  lo_load_label : forall t l, refs_only (b_load_label B t l) l;
  lo_add_and_jump : forall t i, plain (b_add_and_jump B t i);
  lo_arith : forall o t a b, plain (b_arith B o t a b);
  lo_mov : forall t s, plain (b_mov B t s);
  lo_print : forall nl t c, plain (b_print B nl t c);
  lo_store_temporary : forall t f, plain (b_store_temporary B t f);
  lo_restore_temporary : forall t f, plain (b_restore_temporary B t f);
  lo_erase : forall t lc, labs_ok lc (fst (b_erase B t lc)) (snd (b_erase B t lc));
  lo_share_n : forall t n lc, labs_ok lc (fst (b_share_n B t n lc)) (snd (b_share_n B t n lc));
  lo_store : forall a b lc c lc', b_store B a b lc = Ok (c, lc') -> labs_ok lc c lc';
  lo_load : forall a b lc c lc', b_load B a b lc = Ok (c, lc') -> labs_ok lc c lc';
}.
Hypothesis LO : labels_ok.

Variables okS okX : string -> bool.
Notation in_univ := (in_univ okS okX).
Notation sw_ok := (sw_ok okS okX).
Notation names_ok := (names_ok okS okX).

Definition gen_in (lo hi : N) (g : gl) : Prop := is_gen g = true /\ in_univ g /\ (lo < key g <= hi)%N.
Definition ainv (lo : N) (gs : list gl) (hi : N) : Prop := NoDup gs /\ forall g, In g gs -> gen_in lo hi g.
Definition stmt_inv (lc : N) (c : list Code) (lc' : N) : Prop :=
  (lc <= lc')%N /\ exists gs, defs c = map pr gs /\ ainv lc gs lc'.

Lemma gen_in_weaken a b a' b' g : (a' <= a)%N -> (b <= b')%N -> gen_in a b g -> gen_in a' b' g.
Proof. intros H1 H2 (G & U & K). repeat split; try assumption; lia. Qed.
Lemma ainv_nil a b : ainv a [] b.
Proof. split; [constructor|intros g []]. Qed.
Lemma ainv_weaken a b a' b' gs : (a' <= a)%N -> (b <= b')%N -> ainv a gs b -> ainv a' gs b'.
Proof. intros H1 H2 [N I]. split; [exact N|]. intros g Hg. apply (gen_in_weaken a b); auto. Qed.
Lemma ainv_app a b c g1 g2 : (a <= b)%N -> (b <= c)%N -> ainv a g1 b -> ainv b g2 c -> ainv a (g1 ++ g2) c.
Proof.
  intros L1 L2 [N1 I1] [N2 I2]. split.
  - apply NoDup_app_intro; [exact N1|exact N2|]. intros g H1 H2.
    destruct (I1 g H1) as (_ & _ & K1). destruct (I2 g H2) as (_ & _ & K2). lia.
  - intros g H. apply in_app_or in H as [H|H].
    + apply (gen_in_weaken a b); [lia|exact L2|apply I1; exact H].
    + apply (gen_in_weaken b c); [exact L1|lia|apply I2; exact H].
Qed.
Lemma ainv_single a b g : gen_in a b g -> ainv a [g] b.
Proof. intros H. split; [constructor; [intros []|constructor]|]. intros g' [<-|[]]. exact H. Qed.

Lemma inv_plain lc c : defs c = [] -> stmt_inv lc c lc.
Proof. intros H. split; [lia|]. exists []. split; [exact H|apply ainv_nil]. Qed.
Lemma inv_app a b c c1 c2 : stmt_inv a c1 b -> stmt_inv b c2 c -> stmt_inv a (c1 ++ c2) c.
Proof.
  intros (L1 & g1 & E1 & A1) (L2 & g2 & E2 & A2). split; [lia|]. exists (g1 ++ g2). split.
  - rewrite defs_app, E1, E2, map_app. reflexivity.
  - apply (ainv_app a b c); assumption.
Qed.
Lemma inv_plain_l a b c1 c2 : defs c1 = [] -> stmt_inv a c2 b -> stmt_inv a (c1 ++ c2) b.
Proof. intros H I. apply (inv_app a a b); [apply inv_plain; exact H|exact I]. Qed.
Lemma inv_plain_r a b c1 c2 : defs c2 = [] -> stmt_inv a c1 b -> stmt_inv a (c1 ++ c2) b.
Proof. intros H I. apply (inv_app a b b); [exact I|apply inv_plain; exact H]. Qed.
Lemma inv_labs lc c lc' : labs_ok lc c lc' -> stmt_inv lc c lc'.
Proof.
  intros (L & ks & E & N & K & _). split; [exact L|]. exists (map GLab ks). split.
  - rewrite E, map_map. reflexivity.
  - split.
    + apply NoDup_map_inj_in; [|exact N]. intros x y _ _ H. congruence.
    + intros g H. apply in_map_iff in H as (k & <- & Hk). split; [reflexivity|]. split; [exact I|]. cbn [key]. apply K. exact Hk.
Qed.
Lemma defs_label l : defs [b_label B l] = [l].
Proof. unfold defs. cbn [flat_map]. rewrite (proj1 (lo_label LO l)). reflexivity. Qed.
Lemma defs_cons_label l c : defs (b_label B l :: c) = l :: defs c.
Proof. change (b_label B l :: c) with ([b_label B l] ++ c). rewrite defs_app, defs_label. reflexivity. Qed.
Lemma refs_label l : refs [b_label B l] = [].
Proof. unfold refs. cbn [flat_map]. rewrite (proj2 (lo_label LO l)). reflexivity. Qed.
Lemma inv_label a b g : gen_in a b g -> (a <= b)%N -> stmt_inv a [b_label B (pr g)] b.
Proof. intros H L. split; [exact L|]. exists [g]. split; [apply defs_label|apply ainv_single; exact H]. Qed.

Lemma plain_defs c : plain c -> defs c = [].
Proof. intros [H _]. exact H. Qed.
Lemma refs_only_defs c l : refs_only c l -> defs c = [].
Proof. intros [H _]. exact H. Qed.

Lemma urc_inv v context n lc c lc' :
  update_reference_count B v context n lc = Ok (c, lc') -> stmt_inv lc c lc'.
Proof.
  unfold update_reference_count. intros H. rinv H. destruct n as [|[|n]].
  - inversion H as [H1]. apply inv_labs. pose proof (lo_erase LO x lc) as L. rewrite H1 in L. exact L.
  - inversion H; subst. apply inv_plain. reflexivity.
  - inversion H as [H1]. apply inv_labs. pose proof (lo_share_n LO x (N.of_nat (S n)) lc) as L.
    change (N.of_nat (S n)) with (N.pos (Pos.of_succ_nat n)) in L. rewrite H1 in L. exact L.
Qed.
Lemma cwc_inv tm context : forall lc c lc',
  code_weakening_contraction B tm context lc = Ok (c, lc') -> stmt_inv lc c lc'.
Proof.
  induction tm as [|[b targets] r IH]; intros lc c lc' H; cbn [code_weakening_contraction] in H.
  - inversion H; subst. apply inv_plain. reflexivity.
  - destruct (bchi b).
    + rinv H. inversion H; subst. apply (inv_app lc n lc'); [apply (urc_inv _ _ _ _ _ _ E)|apply (IH _ _ _ E0)].
    + rinv H. inversion H; subst. apply (inv_app lc n lc'); [apply (urc_inv _ _ _ _ _ _ E)|apply (IH _ _ _ E0)].
    + apply IH. exact H.
Qed.
Lemma flat_map_nil {X Y} (f : X -> list Y) l : (forall x, In x l -> f x = []) -> flat_map f l = [].
Proof. induction l as [|x l IH]; intros H; [reflexivity|]. cbn. rewrite H by (left; reflexivity). apply IH. intros y Hy. apply H. right. exact Hy. Qed.
Lemma defs_flat_map {X} (f : X -> list Code) l : (forall x, defs (f x) = []) -> defs (flat_map f l) = [].
Proof. intros H. induction l as [|x l IH]; [reflexivity|]. cbn [flat_map]. rewrite defs_app, H, IH. reflexivity. Qed.
Lemma refs_flat_map {X} (f : X -> list Code) l : (forall x, refs (f x) = []) -> refs (flat_map f l) = [].
Proof. intros H. induction l as [|x l IH]; [reflexivity|]. cbn [flat_map]. rewrite refs_app, H, IH. reflexivity. Qed.
Lemma pinstr_plain flag i : plain (emit_pinstr B flag i).
Proof. destruct i; cbn [emit_pinstr]; [apply (lo_mov LO)|apply (lo_store_temporary LO)|apply (lo_restore_temporary LO)]. Qed.
Lemma exchange_plain tm c1 c2 c : code_exchange B tm c1 c2 = Ok c -> plain c.
Proof.
  unfold code_exchange, parallel_moves_code. intros H. rinv H.
  destruct (spanning_forest _ _ _ _); [|discriminate]. inversion H; subst. split.
  - apply defs_flat_map. intros r. unfold emit_root. apply defs_flat_map. intros i. apply (pinstr_plain _ i).
  - apply refs_flat_map. intros r. unfold emit_root. apply refs_flat_map. intros i. apply (pinstr_plain _ i).
Qed.
Lemma table_defs cls base : defs (code_table B cls base) = [].
Proof. unfold code_table. apply defs_flat_map. intros c. apply (refs_only_defs _ _ (lo_jump_label_fixed LO _)). Qed.

Definition IHd (types : list tydecl) (s : stmt) : Prop :=
  names_ok s = true -> forall context lc c lc', code_statement B types s context lc = Ok (c, lc') -> stmt_inv lc c lc'.

(* labels of the loop: the clause labels (number k0 <= lc) plus generated labels in (lc, lc'] *)
Definition loop_inv (T : string) (k0 : N) (xs : list string) (lc : N) (c : list Code) (lc' : N) : Prop :=
  (lc <= lc')%N /\ exists gs, defs c = map pr gs /\ NoDup gs /\
    (forall g, In g gs -> (exists x, In x xs /\ g = GCL T k0 x) \/ gen_in lc lc' g) /\
    (forall x, In x xs -> In (GCL T k0 x) gs).

Definition xnames (cls : list clause) : list string := map (fun c => show_ident (cl_xtor c)) cls.

(* what the guard of a Switch / Create says about the type name and the xtor names of the clauses *)
Lemma sw_ok_inv t cls : sw_ok t (map cl_xtor cls) = true ->
  okS (tyS t) = true /\ lower_first (tyS t) = false /\ (forall x, In x (xnames cls) -> okX x = true) /\ NoDup (xnames cls).
Proof.
  unfold LabelGuard.sw_ok. intros SW. apply andb_true_iff in SW as [SW ND]. apply andb_true_iff in SW as [SW OX].
  apply andb_true_iff in SW as [OS LF]. apply negb_true_iff in LF. repeat split; try assumption.
  - intros x Hx. unfold xnames in Hx. apply in_map_iff in Hx as (cl & <- & Hc).
    rewrite forallb_forall in OX. apply OX, in_map, Hc.
  - apply nodup_strb_NoDup in ND. rewrite map_map in ND. exact ND.
Qed.

Lemma loop_defs types t k0 ldf ctxf :
  (forall cx lc c lc', ldf cx lc = Ok (c, lc') -> labs_ok lc c lc') ->
  forall cls,
  Forall (fun cl => IHd types (cl_body cl)) cls ->
  forallb (fun cl => names_ok (cl_body cl)) cls = true ->
  NoDup (xnames cls) ->
  forall lc c lc', (k0 <= lc)%N ->
  cl_loop B types (type_label t k0) ldf ctxf cls lc = Ok (c, lc') ->
  loop_inv (tyS t) k0 (xnames cls) lc c lc'.
Proof.
  intros LD. induction cls as [|[[x cx] body] r IH]; intros F NM ND lc c lc' K H; cbn [cl_loop] in H.
  - inversion H; subst. split; [lia|]. exists []. repeat split; [constructor|intros g []|intros x []].
  - inversion F as [|? ? Fb Fr]; subst. cbn [forallb cl_body snd] in NM. apply andb_true_iff in NM as [NM1 NM2].
    cbn [xnames map cl_xtor fst] in ND |- *. fold (xnames r) in ND |- *. inversion ND as [|? ? NX ND']; subst.
    rinv H. inversion H; subst; clear H. rename l into cl, n into lc1, l0 into cb, n0 into lc2, l1 into cr.
    pose proof (inv_labs _ _ _ (LD _ _ _ _ E)) as (L1 & gl & El & Al).
    pose proof (Fb NM1 _ _ _ _ E0) as (L2 & gb & Eb & Ab).
    assert (K2 : (k0 <= lc2)%N) by lia.
    pose proof (IH Fr NM2 ND' _ _ _ K2 E1) as (L3 & gr & Er & Nr & Cr & Mr).
    split; [lia|]. exists (GCL (tyS t) k0 (show_ident x) :: gl ++ gb ++ gr). split; [|split; [|split]].
    + rewrite defs_cons_label, !defs_app, clause_label_pr', El, Eb, Er. cbn [map app]. rewrite !map_app. reflexivity.
    + pose proof (ainv_app lc lc1 lc2 gl gb L1 L2 Al Ab) as [Nlb Ilb].
      constructor.
      * intros I. rewrite app_assoc in I. apply in_app_or in I as [I|I].
        -- destruct (Ilb _ I) as (_ & _ & KK). cbn [key] in KK. lia.
        -- destruct (Cr _ I) as [(x' & Hx' & E')|(_ & _ & KK)]; [|cbn [key] in KK; lia].
           injection E' as E'. apply NX. rewrite E'. exact Hx'.
      * rewrite app_assoc. apply NoDup_app_intro; [exact Nlb|exact Nr|].
        intros g H1 H2. destruct (Ilb _ H1) as (_ & _ & KK).
        destruct (Cr _ H2) as [(x' & _ & ->)|(_ & _ & KK')]; [cbn [key] in KK|]; lia.
    + intros g [<-|I].
      * left. exists (show_ident x). split; [left; reflexivity|reflexivity].
      * rewrite app_assoc in I. apply in_app_or in I as [I|I].
        -- right. destruct Al as [_ Il]. destruct Ab as [_ Ib]. apply in_app_or in I as [I|I].
           ++ apply (gen_in_weaken lc lc1); [lia|lia|apply Il; exact I].
           ++ apply (gen_in_weaken lc1 lc2); [lia|lia|apply Ib; exact I].
        -- destruct (Cr _ I) as [(x' & Hx' & E')|G].
           ++ left. exists x'. split; [right; exact Hx'|exact E'].
           ++ right. apply (gen_in_weaken lc2 lc'); [lia|lia|exact G].
    + intros x' [<-|Hx']; [left; reflexivity|]. right. apply in_or_app. right. apply in_or_app. right. apply Mr. exact Hx'.
Qed.

Lemma inv_perm a b c c' : Permutation (defs c) (defs c') -> stmt_inv a c b -> stmt_inv a c' b.
Proof.
  intros P (L & gs & E & N & I). split; [exact L|]. rewrite E in P. apply Permutation_sym, Permutation_map_inv in P as (gs' & E' & P').
  exists gs'. split; [exact E'|]. split; [apply (Permutation_NoDup P' N)|].
  intros g H. apply I. apply (Permutation_in _ (Permutation_sym P') H).
Qed.

Lemma wrap_inv (e : res (list Code * N)) context lc c lc' :
  rbind e (fun body => Ok (b_mark B context ++ fst body, snd body)) = Ok (c, lc') ->
  (forall c0, e = Ok (c0, lc') -> stmt_inv lc c0 lc') -> stmt_inv lc c lc'.
Proof.
  intros H K. rinv H. destruct x as [c0 l0]. cbn [fst snd] in H. inversion H; subst.
  apply inv_plain_l; [apply (plain_defs _ (lo_mark LO _))|]. apply K. reflexivity.
Qed.

Ltac dplain :=
  repeat rewrite defs_app;
  repeat first [ rewrite (plain_defs _ (lo_jump LO _)) | rewrite (plain_defs _ (lo_load_immediate LO _ _))
               | rewrite (plain_defs _ (lo_add_and_jump LO _ _)) | rewrite (plain_defs _ (lo_arith LO _ _ _ _))
               | rewrite (plain_defs _ (lo_mov LO _ _)) | rewrite (plain_defs _ (lo_print LO _ _ _))
               | rewrite (refs_only_defs _ _ (lo_jump_label LO _)) | rewrite (refs_only_defs _ _ (lo_jcc2 LO _ _ _ _))
               | rewrite (refs_only_defs _ _ (lo_jcc1 LO _ _ _)) | rewrite (refs_only_defs _ _ (lo_load_label LO _ _))
               | rewrite table_defs ];
  try reflexivity.

Theorem code_statement_defs types : forall s, IHd types s.
Proof.
  induction s using stmt_ind2; intros NM context lc c lc' HC;
    try match goal with F : Forall _ _ |- _ => rename F into FC end.
  - (* Substitute *)
    cbn [code_statement] in HC. apply (wrap_inv _ _ _ _ _ HC). clear HC. intros c0 HC. rinv HC. inversion HC; subst; clear HC.
    cbn [names_ok stmt_check] in NM.
    apply (inv_app lc n lc'); [apply (cwc_inv _ _ _ _ _ E)|].
    apply inv_plain_l; [apply (plain_defs _ (exchange_plain _ _ _ _ E0))|]. apply (IHs NM _ _ _ _ E1).
  - (* Call *)
    cbn [code_statement] in HC. apply (wrap_inv _ _ _ _ _ HC). clear HC. intros c0 HC. inversion HC; subst. apply inv_plain. dplain.
  - (* Let *)
    cbn [code_statement] in HC. apply (wrap_inv _ _ _ _ _ HC). clear HC. intros c0 HC. rinv HC. inversion HC; subst; clear HC.
    cbn [names_ok stmt_check] in NM.
    apply (inv_app lc n lc'); [apply inv_labs, (lo_store LO _ _ _ _ _ E2)|].
    apply inv_plain_l; [dplain|]. apply (IHs NM _ _ _ _ E4).
  - (* Switch *)
    rewrite code_switch_eq in HC. apply (wrap_inv _ _ _ _ _ HC). clear HC. intros c0 HC. cbv zeta in HC. rinv HC. inversion HC; subst; clear HC.
    unfold names_ok in NM. rewrite stmt_check_switch in NM. apply andb_true_iff in NM as [SW NM].
    destruct (sw_ok_inv _ _ SW) as (OS & LF & XU & ND).
    assert (K : (lc + 1 <= lc + 1)%N) by lia.
    pose proof (loop_defs types t (lc + 1)%N _ _ (fun cx lc c lc' => lo_load LO cx _ lc c lc') cls FC NM ND _ _ _ K E0)
      as (L & gs & Eg & Ng & Cg & _).
    assert (D1 : defs x = []).
    { match type of E with (if ?b then _ else _) = _ => destruct b end; [inversion E; subst; reflexivity|]. rinv E. inversion E; subst. dplain. }
    split; [lia|]. exists (GTL (tyS t) (lc + 1) :: gs). split; [|split].
    + rewrite !defs_app, D1, ?defs_cons_label, ?defs_label, ?defs_app, Eg. cbn [app map].
      match goal with |- context [if ?b then _ else _] => destruct b end; [reflexivity|rewrite table_defs; reflexivity].
    + constructor; [|exact Ng]. intros I. destruct (Cg _ I) as [(x' & _ & E')|(_ & _ & KK)]; [discriminate|cbn [key] in KK; lia].
    + intros g [<-|I].
      * split; [reflexivity|]. split; [split; assumption|cbn [key]; lia].
      * destruct (Cg _ I) as [(x' & Hx' & ->)|G].
        -- split; [reflexivity|]. split; [repeat split; try assumption; apply XU; exact Hx'|cbn [key]; lia].
        -- apply (gen_in_weaken (lc + 1) lc'); [lia|lia|exact G].
  - (* Create *)
    destruct env as [env|]; [|cbn [code_statement] in HC; rinv HC; discriminate].
    rewrite code_create_eq in HC. apply (wrap_inv _ _ _ _ _ HC). clear HC. intros c0 HC. cbv zeta in HC. rinv HC. inversion HC; subst; clear HC.
    unfold names_ok in NM. rewrite stmt_check_create in NM. apply andb_true_iff in NM as [NM NMn]. apply andb_true_iff in NM as [SW NM].
    destruct (sw_ok_inv _ _ SW) as (OS & LF & XU & ND).
    rename n into lc1, n0 into lc3.
    pose proof (inv_labs _ _ _ (lo_store LO _ _ _ _ _ E0)) as (L1 & g1 & E1' & A1).
    pose proof (IHs NMn _ _ _ _ E2) as (L3 & g3 & E3' & A3).
    assert (K : (lc1 + 1 <= lc3)%N) by lia.
    pose proof (loop_defs types t (lc1 + 1)%N _ _ (fun cx lc c lc' => lo_load LO _ cx lc c lc') cls FC NM ND _ _ _ K E3)
      as (L5 & g5 & E5 & N5 & C5 & _).
    split; [lia|]. exists (g1 ++ g3 ++ GTL (tyS t) (lc1 + 1) :: g5). split; [|split].
    + rewrite !defs_app, E1', E3', ?defs_cons_label, ?defs_label, ?defs_app, E5, (refs_only_defs _ _ (lo_load_label LO _ _)). cbn [app].
      rewrite !map_app. cbn [map].
      match goal with |- context [if ?b then _ else _] => destruct b end; [reflexivity|rewrite table_defs; reflexivity].
    + destruct A1 as [N1 I1]. destruct A3 as [N3 I3].
      apply NoDup_app_intro; [exact N1| |].
      * apply NoDup_app_intro; [exact N3| |].
        -- constructor; [|exact N5]. intros I. destruct (C5 _ I) as [(x' & _ & E')|(_ & _ & KK)]; [discriminate|cbn [key] in KK; lia].
        -- intros g Hg [<-|I]; [destruct (I3 _ Hg) as (_ & _ & KK); cbn [key] in KK; lia|].
           destruct (I3 _ Hg) as (_ & _ & KK). destruct (C5 _ I) as [(x' & _ & ->)|(_ & _ & KK')]; [cbn [key] in KK|]; lia.
      * intros g Hg I. destruct (I1 _ Hg) as (_ & _ & KK). apply in_app_or in I as [I|[<-|I]].
        -- destruct (I3 _ I) as (_ & _ & KK'). lia.
        -- cbn [key] in KK. lia.
        -- destruct (C5 _ I) as [(x' & _ & ->)|(_ & _ & KK')]; [cbn [key] in KK|]; lia.
    + destruct A1 as [N1 I1]. destruct A3 as [N3 I3]. intros g I. apply in_app_or in I as [I|I].
      * apply (gen_in_weaken lc lc1); [lia|lia|apply I1; exact I].
      * apply in_app_or in I as [I|[<-|I]].
        -- apply (gen_in_weaken (lc1 + 1) lc3); [lia|lia|apply I3; exact I].
        -- split; [reflexivity|]. split; [split; assumption|cbn [key]; lia].
        -- destruct (C5 _ I) as [(x' & Hx' & ->)|G].
           ++ split; [reflexivity|]. split; [repeat split; try assumption; apply XU; exact Hx'|cbn [key]; lia].
           ++ apply (gen_in_weaken lc3 lc'); [lia|lia|exact G].
  - (* Invoke *)
    cbn [code_statement] in HC. apply (wrap_inv _ _ _ _ _ HC). clear HC. intros c0 HC. rinv HC.
    destruct (Nat.leb (List.length (txtors x0)) 1); [inversion HC; subst; apply inv_plain; dplain|].
    rinv HC. inversion HC; subst. apply inv_plain. dplain.
  - (* Literal *)
    cbn [code_statement] in HC. apply (wrap_inv _ _ _ _ _ HC). clear HC. intros c0 HC. rinv HC. inversion HC; subst; clear HC.
    apply inv_plain_l; [dplain|]. apply (IHs NM _ _ _ _ E0).
  - (* Op *)
    cbn [code_statement] in HC. apply (wrap_inv _ _ _ _ _ HC). clear HC. intros c0 HC. rinv HC. inversion HC; subst; clear HC.
    apply inv_plain_l; [dplain|]. apply (IHs NM _ _ _ _ E2).
  - (* PrintI64 *)
    cbn [code_statement] in HC. apply (wrap_inv _ _ _ _ _ HC). clear HC. intros c0 HC. rinv HC. inversion HC; subst; clear HC.
    apply inv_plain_l; [dplain|]. apply (IHs NM _ _ _ _ E0).
  - (* IfC *)
    cbn [code_statement] in HC. apply (wrap_inv _ _ _ _ _ HC). clear HC. intros c0 HC. rinv HC. inversion HC; subst; clear HC.
    cbn [names_ok stmt_check] in NM. apply andb_true_iff in NM as [NM1 NM2].
    assert (D1 : defs x0 = []).
    { destruct b; rinv E0; inversion E0; subst; dplain. }
    apply inv_plain_l; [exact D1|].
    pose proof (IHs2 NM2 _ _ _ _ E1) as I2. pose proof (IHs1 NM1 _ _ _ _ E2) as I1.
    apply (inv_perm lc lc' ([b_label B (pr (GLab (lc + 1)))] ++ l ++ l0)).
    { rewrite !defs_app, !defs_cons_label. change (defs []) with (@nil string). cbn [app]. apply Permutation_middle. }
    apply (inv_app lc (lc + 1) lc'); [apply inv_label; [|lia]|apply (inv_app _ n lc'); assumption].
    split; [reflexivity|]. split; [exact I|cbn [key]; lia].
  - (* Exit *)
    cbn [code_statement] in HC. apply (wrap_inv _ _ _ _ _ HC). clear HC. intros c0 HC. rinv HC. inversion HC; subst. apply inv_plain. dplain.
Qed.

(* translate: one definition label per definition *)
Definition translate_inv (names : list string) (lc : N) (c : list Code) (lc' : N) : Prop :=
  (lc <= lc')%N /\ exists gs, defs c = map pr gs /\ NoDup gs /\
    (forall g, In g gs -> (exists n, In n names /\ g = GDef n) \/ gen_in lc lc' g) /\
    (forall n, In n names -> In (GDef n) gs).

Theorem translate_defs types : forall ds lc c lc',
  forallb (fun d => names_ok (dbody d)) ds = true -> NoDup (dnames ds) ->
  translate B types ds lc = Ok (c, lc') -> translate_inv (dnames ds) lc c lc'.
Proof.
  induction ds as [|d r IH]; intros lc c lc' NM ND H; cbn [translate] in H.
  - inversion H; subst. split; [lia|]. exists []. repeat split; [constructor|intros g []|intros n []].
  - cbn [forallb] in NM. apply andb_true_iff in NM as [NM1 NM2]. cbn [dnames map] in ND |- *. fold (dnames r) in ND |- *.
    inversion ND as [|? ? NX ND']; subst. rinv H. inversion H; subst; clear H. rename l into c1, n into lc1, l0 into c2.
    pose proof (code_statement_defs types (dbody d) NM1 _ _ _ _ E) as (L1 & g1 & E1 & N1 & I1).
    pose proof (IH _ _ _ NM2 ND' E0) as (L2 & g2 & E2 & N2 & C2 & M2).
    split; [lia|]. exists (GDef (show_ident (dname d)) :: g1 ++ g2). split; [|split; [|split]].
    + rewrite defs_cons_label, defs_app, E1, E2. cbn [map]. rewrite map_app. reflexivity.
    + constructor.
      * intros I. apply in_app_or in I as [I|I].
        -- destruct (I1 _ I) as (G & _). discriminate.
        -- destruct (C2 _ I) as [(n & Hn & E')|(G & _)]; [|discriminate]. injection E' as E'. apply NX. rewrite E'. exact Hn.
      * apply NoDup_app_intro; [exact N1|exact N2|]. intros g H1 H2. destruct (I1 _ H1) as (G & _ & KK).
        destruct (C2 _ H2) as [(n & _ & ->)|(_ & _ & KK')]; [discriminate|lia].
    + intros g [<-|I]; [left; eexists; split; [left; reflexivity|reflexivity]|]. apply in_app_or in I as [I|I].
      * right. apply (gen_in_weaken lc lc1); [lia|lia|apply I1; exact I].
      * destruct (C2 _ I) as [(n & Hn & E')|G]; [left; exists n; split; [right; exact Hn|exact E']|].
        right. apply (gen_in_weaken lc1 lc'); [lia|lia|exact G].
    + intros n [<-|Hn]; [left; reflexivity|]. right. apply in_or_app. right. apply M2. exact Hn.
Qed.

(* uniqueness of the texts, where the printing is injective *)
Hypothesis Hinj : forall g1 g2, in_univ g1 -> in_univ g2 -> pr g1 = pr g2 -> g1 = g2.

Notation prog_names_ok := (prog_names_ok okS okX).

Theorem translate_labels_unique types ds lc c lc' :
  prog_names_ok ds = true -> translate B types ds lc = Ok (c, lc') ->
  NoDup (defs c) /\ (lc <= lc')%N /\
  (forall l, In l (defs c) -> exists g, l = pr g /\ in_univ g /\ (is_gen g = true -> (lc < key g <= lc')%N)).
Proof.
  unfold prog_names_ok. intros G H. apply andb_true_iff in G as [G1 G2]. apply nodup_strb_NoDup in G2.
  assert (NM : forallb (fun d => names_ok (dbody d)) ds = true).
  { apply forallb_forall. intros d Hd. rewrite forallb_forall in G1. specialize (G1 d Hd). apply andb_true_iff in G1. tauto. }
  assert (LF : forall n, In n (dnames ds) -> lower_first n = true).
  { intros n Hn. unfold dnames in Hn. apply in_map_iff in Hn as (d & <- & Hd). rewrite forallb_forall in G1.
    specialize (G1 d Hd). apply andb_true_iff in G1. tauto. }
  destruct (translate_defs types ds lc c lc' NM G2 H) as (L & gs & E & N & C & _).
  assert (U : forall g, In g gs -> in_univ g).
  { intros g Hg. destruct (C _ Hg) as [(n & Hn & ->)|(_ & U & _)]; [cbn; apply LF; exact Hn|exact U]. }
  split; [|split; [exact L|]].
  - rewrite E. apply NoDup_map_inj_in; [|exact N]. intros x y Hx Hy. apply Hinj; apply U; assumption.
  - intros l Hl. rewrite E in Hl. apply in_map_iff in Hl as (g & <- & Hg). exists g. split; [reflexivity|]. split; [apply U; exact Hg|].
    intros GG. destruct (C _ Hg) as [(n & _ & ->)|(_ & _ & KK)]; [discriminate|exact KK].
Qed.
End LabelGen.
Arguments lo_label {Code Temp B cdefs crefs} _.
Arguments lo_mark {Code Temp B cdefs crefs} _.
Arguments lo_jump {Code Temp B cdefs crefs} _.
Arguments lo_jump_label {Code Temp B cdefs crefs} _.
Arguments lo_jump_label_fixed {Code Temp B cdefs crefs} _.
Arguments lo_jcc2 {Code Temp B cdefs crefs} _.
Arguments lo_jcc1 {Code Temp B cdefs crefs} _.
Arguments lo_load_immediate {Code Temp B cdefs crefs} _.
Arguments lo_load_label {Code Temp B cdefs crefs} _.
Arguments lo_add_and_jump {Code Temp B cdefs crefs} _.
Arguments lo_arith {Code Temp B cdefs crefs} _.
Arguments lo_mov {Code Temp B cdefs crefs} _.
Arguments lo_print {Code Temp B cdefs crefs} _.
Arguments lo_store_temporary {Code Temp B cdefs crefs} _.
Arguments lo_restore_temporary {Code Temp B cdefs crefs} _.
Arguments lo_erase {Code Temp B cdefs crefs} _.
Arguments lo_share_n {Code Temp B cdefs crefs} _.
Arguments lo_store {Code Temp B cdefs crefs} _.
Arguments lo_load {Code Temp B cdefs crefs} _.

Section LabelRefs.
Context {Code Temp : Type} (B : backend Code Temp).
Variables (cdefs crefs : Code -> list string).
Notation defs := (defs cdefs).
Notation refs := (refs crefs).
Hypothesis LO : labels_ok B cdefs crefs.
Variable fcall : ident -> bool.
Definition called (l : string) : Prop := exists f, fcall f = true /\ l = show_ident f +++ "_".
Definition ref_in (D : list string) (c : list Code) : Prop :=
  forall l, In l (refs c) -> In l D \/ l = "cleanup" \/ called l.
Notation calls_ok := (calls_ok fcall).

Lemma ref_in_app D c1 c2 : ref_in D c1 -> ref_in D c2 -> ref_in D (c1 ++ c2).
Proof. intros H1 H2 l Hl. unfold LabelGen.refs in Hl. rewrite flat_map_app in Hl. apply in_app_or in Hl as [Hl|Hl]; auto. Qed.
Lemma ref_in_mono D D' c : incl D D' -> ref_in D c -> ref_in D' c.
Proof. intros I H l Hl. destruct (H l Hl) as [X|X]; [left; apply I; exact X|right; exact X]. Qed.
Lemma ref_in_plain D c : refs c = [] -> ref_in D c.
Proof. intros H l Hl. rewrite H in Hl. destruct Hl. Qed.
Lemma ref_in_only D c l : refs_only cdefs crefs c l -> In l D \/ l = "cleanup" \/ called l -> ref_in D c.
Proof. intros [_ I] H l' Hl. apply I in Hl. destruct Hl as [<-|[]]. exact H. Qed.
Lemma ref_in_labs lc c lc' : labs_ok cdefs crefs lc c lc' -> ref_in (defs c) c.
Proof. intros (_ & ks & _ & _ & _ & I) l Hl. left. apply I. exact Hl. Qed.
Lemma ref_in_label D l : ref_in D [b_label B l].
Proof. apply ref_in_plain. apply (refs_label B cdefs crefs LO). Qed.
Lemma ref_in_cons_label D l c : ref_in D c -> ref_in D (b_label B l :: c).
Proof. intros H. apply (ref_in_app D [_] c); [apply ref_in_label|exact H]. Qed.

Ltac inc := first [ apply incl_refl | apply incl_appl; inc | apply incl_appr; inc | apply incl_tl; inc ].
Ltac dnorm := repeat first [rewrite (defs_app cdefs) | rewrite (defs_cons_label B cdefs crefs LO)].
Ltac subE E := match type of E with _ = Ok (?l, _) => sub (defs l) end
with sub D := apply (ref_in_mono D); [repeat first [rewrite (defs_app cdefs) | rewrite (defs_cons_label B cdefs crefs LO)]; inc|].

Lemma urc_refs v context n lc c lc' :
  update_reference_count B v context n lc = Ok (c, lc') -> ref_in (defs c) c.
Proof.
  unfold update_reference_count. intros H. rinv H. destruct n as [|[|n]].
  - inversion H as [H1]. pose proof (lo_erase LO x lc) as L. rewrite H1 in L. apply (ref_in_labs _ _ _ L).
  - inversion H; subst. apply ref_in_plain. reflexivity.
  - inversion H as [H1]. pose proof (lo_share_n LO x (N.of_nat (S n)) lc) as L.
    change (N.of_nat (S n)) with (N.pos (Pos.of_succ_nat n)) in L. rewrite H1 in L. apply (ref_in_labs _ _ _ L).
Qed.
Lemma cwc_refs tm context : forall lc c lc',
  code_weakening_contraction B tm context lc = Ok (c, lc') -> ref_in (defs c) c.
Proof.
  induction tm as [|[b targets] r IH]; intros lc c lc' H; cbn [code_weakening_contraction] in H.
  - inversion H; subst. apply ref_in_plain. reflexivity.
  - destruct (bchi b).
    + rinv H. inversion H; subst. apply ref_in_app; [sub (defs l); apply (urc_refs _ _ _ _ _ _ E)|sub (defs l0); apply (IH _ _ _ E0)].
    + rinv H. inversion H; subst. apply ref_in_app; [sub (defs l); apply (urc_refs _ _ _ _ _ _ E)|sub (defs l0); apply (IH _ _ _ E0)].
    + apply IH with (lc := lc) (lc' := lc'). exact H.
Qed.

Definition IHr (types : list tydecl) (s : stmt) : Prop :=
  calls_ok s = true -> forall context lc c lc', code_statement B types s context lc = Ok (c, lc') -> ref_in (defs c) c.

Lemma loop_refs types fresh ldf ctxf :
  (forall cx lc c lc', ldf cx lc = Ok (c, lc') -> labs_ok cdefs crefs lc c lc') ->
  forall cls,
  Forall (fun cl => IHr types (cl_body cl)) cls ->
  forallb (fun cl => calls_ok (cl_body cl)) cls = true ->
  forall lc c lc',
  cl_loop B types fresh ldf ctxf cls lc = Ok (c, lc') ->
  ref_in (defs c) c /\ forall cl, In cl cls -> In (fresh +++ "_" +++ show_ident (cl_xtor cl)) (defs c).
Proof.
  intros LD. induction cls as [|[[x cx] body] r IH]; intros F NM lc c lc' H; cbn [cl_loop] in H.
  - inversion H; subst. split; [apply ref_in_plain; reflexivity|intros cl []].
  - inversion F as [|? ? Fb Fr]; subst. cbn [forallb cl_body snd] in NM. apply andb_true_iff in NM as [NM1 NM2].
    rinv H. inversion H; subst; clear H. rename l into cl, n into lc1, l0 into cb, n0 into lc2, l1 into cr.
    destruct (IH Fr NM2 _ _ _ E1) as [R M]. split.
    + apply ref_in_cons_label. apply ref_in_app; [sub (defs cl); apply (ref_in_labs _ _ _ (LD _ _ _ _ E))|].
      apply ref_in_app; [sub (defs cb); apply (Fb NM1 _ _ _ _ E0)|sub (defs cr); exact R].
    + rewrite (defs_cons_label B cdefs crefs LO). intros c' [<-|Hc]; [left; reflexivity|].
      right. rewrite !(defs_app cdefs). apply in_or_app. right. apply in_or_app. right. apply M. exact Hc.
Qed.

Lemma table_refs D cls base :
  (forall cl, In cl cls -> In (base +++ "_" +++ show_ident (cl_xtor cl)) D) -> ref_in D (code_table B cls base).
Proof.
  unfold code_table. induction cls as [|cl r IH]; intros H; [apply ref_in_plain; reflexivity|]. cbn [flat_map].
  apply ref_in_app; [|apply IH; intros c' Hc; apply H; right; exact Hc].
  apply (ref_in_only _ _ _ (lo_jump_label_fixed LO _)). left. apply H. left. reflexivity.
Qed.

Lemma wrap_refs (e : res (list Code * N)) context c lc' :
  rbind e (fun body => Ok (b_mark B context ++ fst body, snd body)) = Ok (c, lc') ->
  (forall c0, e = Ok (c0, lc') -> ref_in (defs c0) c0) -> ref_in (defs c) c.
Proof.
  intros H K. rinv H. destruct x as [c0 l0]. cbn [fst snd] in H. inversion H; subst.
  apply ref_in_app; [apply ref_in_plain, (lo_mark LO)|]. sub (defs c0). apply K. reflexivity.
Qed.

Ltac rplain :=
  first [ apply ref_in_plain; first [ apply (lo_jump LO) | apply (lo_load_immediate LO) | apply (lo_add_and_jump LO)
                                    | apply (lo_arith LO) | apply (lo_mov LO) | apply (lo_print LO) ] ].

Theorem code_statement_refs types : forall s, IHr types s.
Proof.
  induction s using stmt_ind2; intros NM context lc c lc' HC;
    try match goal with F : Forall _ _ |- _ => rename F into FC end.
  - (* Substitute *)
    cbn [code_statement] in HC. apply (wrap_refs _ _ _ _ HC). clear HC. intros c0 HC. rinv HC. inversion HC; subst; clear HC.
    apply ref_in_app; [sub (defs l); apply (cwc_refs _ _ _ _ _ E)|].
    apply ref_in_app; [apply ref_in_plain, (exchange_plain B cdefs crefs LO _ _ _ _ E0)|].
    sub (defs l0). apply (IHs NM _ _ _ _ E1).
  - (* Call *)
    cbn [code_statement] in HC. apply (wrap_refs _ _ _ _ HC). clear HC. intros c0 HC. inversion HC; subst.
    apply (ref_in_only _ _ _ (lo_jump_label LO _)). right. right. exists l. split; [exact NM|reflexivity].
  - (* Let *)
    cbn [code_statement] in HC. apply (wrap_refs _ _ _ _ HC). clear HC. intros c0 HC. rinv HC. inversion HC; subst; clear HC.
    apply ref_in_app; [sub (defs l); apply (ref_in_labs _ _ _ (lo_store LO _ _ _ _ _ E2))|].
    apply ref_in_app; [rplain|]. sub (defs l0). apply (IHs NM _ _ _ _ E4).
  - (* Switch *)
    rewrite code_switch_eq in HC. apply (wrap_refs _ _ _ _ HC). clear HC. intros c0 HC. cbv zeta in HC. rinv HC. inversion HC; subst; clear HC.
    unfold calls_ok in NM. rewrite stmt_check_switch in NM. cbn [andb] in NM.
    destruct (loop_refs types _ _ _ (fun cx lc c lc' => lo_load LO cx _ lc c lc') cls FC NM _ _ _ E0) as [R M].
    apply ref_in_app.
    + match type of E with (if ?b then _ else _) = _ => destruct b end; [inversion E; subst; apply ref_in_plain; reflexivity|].
      rinv E. inversion E; subst. apply ref_in_app; [|apply ref_in_app; rplain].
      apply (ref_in_only _ _ _ (lo_load_label LO _ _)). left. dnorm.
      apply in_or_app. right. left. reflexivity.
    + apply ref_in_cons_label. apply ref_in_app; [|sub (defs l); exact R].
      match goal with |- context [if ?b then _ else _] => destruct b end; [apply ref_in_plain; reflexivity|].
      apply table_refs. intros cl Hc. dnorm.
      apply in_or_app. right. right. apply in_or_app. right. apply M. exact Hc.
  - (* Create *)
    destruct env as [env|]; [|cbn [code_statement] in HC; rinv HC; discriminate].
    rewrite code_create_eq in HC. apply (wrap_refs _ _ _ _ HC). clear HC. intros c0 HC. cbv zeta in HC. rinv HC. inversion HC; subst; clear HC.
    unfold calls_ok in NM. rewrite stmt_check_create in NM. cbn [andb] in NM. apply andb_true_iff in NM as [NM NMn].
    destruct (loop_refs types _ _ _ (fun cx lc c lc' => lo_load LO _ cx lc c lc') cls FC NM _ _ _ E3) as [R M].
    apply ref_in_app; [subE E0; apply (ref_in_labs _ _ _ (lo_store LO _ _ _ _ _ E0))|].
    apply ref_in_app.
    { apply (ref_in_only _ _ _ (lo_load_label LO _ _)). left. dnorm.
      apply in_or_app. right. apply in_or_app. right. apply in_or_app. right. left. reflexivity. }
    apply ref_in_app; [subE E2; apply (IHs NMn _ _ _ _ E2)|].
    apply ref_in_cons_label. apply ref_in_app; [|subE E3; exact R].
    match goal with |- context [if ?b then _ else _] => destruct b end; [apply ref_in_plain; reflexivity|].
    apply table_refs. intros cl Hc. dnorm.
    apply in_or_app. right. apply in_or_app. right. apply in_or_app. right. right. apply in_or_app. right. apply M. exact Hc.
  - (* Invoke *)
    cbn [code_statement] in HC. apply (wrap_refs _ _ _ _ HC). clear HC. intros c0 HC. rinv HC.
    destruct (Nat.leb (List.length (txtors x0)) 1); [inversion HC; subst; rplain|].
    rinv HC. inversion HC; subst. rplain.
  - (* Literal *)
    cbn [code_statement] in HC. apply (wrap_refs _ _ _ _ HC). clear HC. intros c0 HC. rinv HC. inversion HC; subst; clear HC.
    apply ref_in_app; [rplain|]. sub (defs l). apply (IHs NM _ _ _ _ E0).
  - (* Op *)
    cbn [code_statement] in HC. apply (wrap_refs _ _ _ _ HC). clear HC. intros c0 HC. rinv HC. inversion HC; subst; clear HC.
    apply ref_in_app; [rplain|]. sub (defs l). apply (IHs NM _ _ _ _ E2).
  - (* PrintI64 *)
    cbn [code_statement] in HC. apply (wrap_refs _ _ _ _ HC). clear HC. intros c0 HC. rinv HC. inversion HC; subst; clear HC.
    apply ref_in_app; [rplain|]. sub (defs l). apply (IHs NM _ _ _ _ E0).
  - (* IfC *)
    cbn [code_statement] in HC. apply (wrap_refs _ _ _ _ HC). clear HC. intros c0 HC. rinv HC. inversion HC; subst; clear HC.
    cbn [calls_ok stmt_check] in NM. apply andb_true_iff in NM as [NM1 NM2].
    assert (IN : In ("lab" +++ dec (lc + 1)) (defs (x0 ++ l ++ [b_label B ("lab" +++ dec (lc + 1))] ++ l0))).
    { rewrite !(defs_app cdefs), (defs_label B cdefs crefs LO). apply in_or_app. right. apply in_or_app. right. left. reflexivity. }
    apply ref_in_app.
    + destruct b; rinv E0; inversion E0; subst.
      * apply (ref_in_only _ _ _ (lo_jcc2 LO _ _ _ _)). left. exact IN.
      * apply (ref_in_only _ _ _ (lo_jcc1 LO _ _ _)). left. exact IN.
    + apply ref_in_app; [sub (defs l); apply (IHs2 NM2 _ _ _ _ E1)|].
      apply ref_in_cons_label. sub (defs l0). apply (IHs1 NM1 _ _ _ _ E2).
  - (* Exit *)
    cbn [code_statement] in HC. apply (wrap_refs _ _ _ _ HC). clear HC. intros c0 HC. rinv HC. inversion HC; subst.
    apply ref_in_app; [rplain|]. apply (ref_in_only _ _ _ (lo_jump_label LO _)). right. left. reflexivity.
Qed.

Theorem translate_refs types : forall ds lc c lc',
  forallb (fun d => calls_ok (dbody d)) ds = true ->
  translate B types ds lc = Ok (c, lc') ->
  ref_in (defs c) c /\ forall d, In d ds -> In (show_ident (dname d) +++ "_") (defs c).
Proof.
  induction ds as [|d r IH]; intros lc c lc' NM H; cbn [translate] in H.
  - inversion H; subst. split; [apply ref_in_plain; reflexivity|intros d []].
  - cbn [forallb] in NM. apply andb_true_iff in NM as [NM1 NM2]. rinv H. inversion H; subst; clear H.
    destruct (IH _ _ _ NM2 E0) as [R M]. split.
    + apply ref_in_cons_label. apply ref_in_app; [sub (defs l); apply (code_statement_refs types _ NM1 _ _ _ _ E)|sub (defs l0); exact R].
    + rewrite (defs_cons_label B cdefs crefs LO). intros d' [<-|Hd]; [left; reflexivity|]. right. rewrite (defs_app cdefs).
      apply in_or_app. right. apply M. exact Hd.
Qed.
End LabelRefs.

(* every referenced label is defined, or is the routine's `cleanup`: for programs whose calls go to definitions *)
Theorem translate_refs_defined {Code Temp} (B : backend Code Temp) cdefs crefs (LO : labels_ok B cdefs crefs) types ds lc c lc' :
  prog_calls_ok ds = true -> translate B types ds lc = Ok (c, lc') ->
  forall l, In l (refs crefs c) -> In l (defs cdefs c) \/ l = "cleanup".
Proof.
  intros G H l Hl. destruct (translate_refs B cdefs crefs LO _ types ds lc c lc' G H) as [R M].
  destruct (R l Hl) as [X|[X|(f & Hf & ->)]]; [left; exact X|right; exact X|left].
  apply mem_strb_In in Hf. unfold dnames in Hf. apply in_map_iff in Hf as (d & E & Hd). rewrite <- E. apply M. exact Hd.
Qed.

(* building blocks for the memory operations of a back end *)
Section LabsLemmas.
Context {Code : Type}.
Variables (cdefs crefs : Code -> list string).
Notation defs := (defs cdefs).
Notation refs := (refs crefs).
Notation labs_ok := (labs_ok cdefs crefs).
Notation lab k := (pr (GLab k)).

Lemma labs_plain lc c : defs c = [] -> refs c = [] -> labs_ok lc c lc.
Proof.
  intros D R. split; [lia|]. exists []. rewrite D, R. split; [reflexivity|]. split; [constructor|]. split; [intros k []|apply incl_refl].
Qed.
Lemma labs_mono a c b : labs_ok a c b -> (a <= b)%N.
Proof. intros [H _]. exact H. Qed.
Lemma labs_weaken a b a' b' c : (a' <= a)%N -> (b <= b')%N -> labs_ok a c b -> labs_ok a' c b'.
Proof.
  intros H1 H2 (L & ks & E & N & K & I). split; [lia|]. exists ks. repeat split; try assumption; apply K in H; lia.
Qed.
Lemma labs_perm a b c ks :
  (a <= b)%N -> Permutation (defs c) (map (fun k => lab k) ks) -> NoDup ks -> (forall k, In k ks -> (a < k <= b)%N) ->
  incl (refs c) (defs c) -> labs_ok a c b.
Proof.
  intros L P N K I. split; [exact L|]. apply Permutation_map_inv in P as (ks' & E & P).
  exists ks'. repeat split; try assumption; [apply (Permutation_NoDup P N)| |]; apply K, (Permutation_in _ (Permutation_sym P)); exact H.
Qed.
Lemma labs_app a b c c1 c2 : labs_ok a c1 b -> labs_ok b c2 c -> labs_ok a (c1 ++ c2) c.
Proof.
  intros (L1 & k1 & E1 & N1 & K1 & I1) (L2 & k2 & E2 & N2 & K2 & I2). split; [lia|]. exists (k1 ++ k2). split; [|split; [|split]].
  - rewrite (defs_app cdefs), E1, E2, map_app. reflexivity.
  - apply NoDup_app_intro; [exact N1|exact N2|]. intros k H1 H2. apply K1 in H1. apply K2 in H2. lia.
  - intros k H. apply in_app_or in H as [H|H]; [apply K1 in H|apply K2 in H]; lia.
  - rewrite (refs_app crefs), (defs_app cdefs). apply incl_app; [apply incl_appl|apply incl_appr]; assumption.
Qed.
(* skip_if_zero: one new label after the body *)
Lemma labs_skip a b body code :
  labs_ok a body b -> defs code = defs body ++ [lab (b + 1)] -> incl (refs code) (lab (b + 1) :: refs body) ->
  labs_ok a code (b + 1).
Proof.
  intros (L & ks & E & N & K & I) D R. split; [lia|]. exists (ks ++ [(b + 1)%N]). split; [|split; [|split]].
  - rewrite D, E, map_app. reflexivity.
  - apply NoDup_app_intro; [exact N|constructor; [intros []|constructor]|]. intros k H [<-|[]]. apply K in H. lia.
  - intros k H. apply in_app_or in H as [H|[<-|[]]]; [apply K in H|]; lia.
  - intros l Hl. apply R in Hl. rewrite D. apply in_or_app. destruct Hl as [<-|Hl]; [right; left; reflexivity|left; apply I; exact Hl].
Qed.
(* if_zero_then_else: the branches were generated before the two labels are drawn *)
Lemma labs_ite a b c th el code :
  labs_ok a th b -> labs_ok b el c ->
  defs code = defs el ++ lab (c + 1) :: defs th ++ [lab (c + 2)] ->
  incl (refs code) (lab (c + 1) :: refs el ++ lab (c + 2) :: refs th) ->
  labs_ok a code (c + 2).
Proof.
  intros (L1 & k1 & E1 & N1 & K1 & I1) (L2 & k2 & E2 & N2 & K2 & I2) D R.
  apply (labs_perm a (c + 2) code (k2 ++ (c + 1)%N :: k1 ++ [(c + 2)%N])); [lia| | | |].
  - rewrite D, E1, E2, map_app. cbn [map]. rewrite map_app. reflexivity.
  - apply NoDup_app_intro; [exact N2| |].
    + constructor.
      * intros H. apply in_app_or in H as [H|[H|[]]]; [apply K1 in H|]; lia.
      * apply NoDup_app_intro; [exact N1|constructor; [intros []|constructor]|]. intros k H [<-|[]]. apply K1 in H. lia.
    + intros k H1 [<-|H2]; [apply K2 in H1; lia|]. apply K2 in H1. apply in_app_or in H2 as [H2|[<-|[]]]; [apply K1 in H2|]; lia.
  - intros k H. apply in_app_or in H as [H|[<-|H]]; [apply K2 in H; lia|lia|].
    apply in_app_or in H as [H|[<-|[]]]; [apply K1 in H|]; lia.
  - intros l Hl. apply R in Hl. rewrite D. destruct Hl as [<-|Hl].
    + apply in_or_app. right. left. reflexivity.
    + apply in_app_or in Hl as [Hl|[<-|Hl]].
      * apply in_or_app. left. apply I2. exact Hl.
      * apply in_or_app. right. right. apply in_or_app. right. left. reflexivity.
      * apply in_or_app. right. right. apply in_or_app. left. apply I1. exact Hl.
Qed.
Lemma labs_cons_plain a b i c : cdefs i = [] -> crefs i = [] -> labs_ok a c b -> labs_ok a (i :: c) b.
Proof.
  intros D R H. change (i :: c) with ([i] ++ c). apply (labs_app a a b); [|exact H].
  apply labs_plain; unfold LabelGen.defs, LabelGen.refs; cbn [flat_map]; rewrite ?D, ?R; reflexivity.
Qed.
End LabsLemmas.
Arguments labs_mono {Code cdefs crefs a c b} _.

(* [nolab]: any test that holds only of instructions which neither define nor reference a label *)
Section NoLab.
Context {Code : Type}.
Variables (cdefs crefs : Code -> list string) (nolab : Code -> bool).
Hypothesis nolab_sound : forall i, nolab i = true -> cdefs i = [] /\ crefs i = [].

Lemma nolab_plain l : forallb nolab l = true -> plain cdefs crefs l.
Proof.
  unfold plain, LabelGen.defs, LabelGen.refs. induction l as [|c l IH]; intros H; [split; reflexivity|].
  cbn [forallb] in H. apply andb_true_iff in H as [H1 H2]. destruct (IH H2) as [D R], (nolab_sound c H1) as [D1 R1].
  cbn [flat_map]. rewrite D, R, D1, R1. split; reflexivity.
Qed.
Lemma forallb_map_all {X} (f : X -> Code) l : (forall x, nolab (f x) = true) -> forallb nolab (map f l) = true.
Proof. intros H. induction l; cbn; [reflexivity|]. rewrite H, IHl. reflexivity. Qed.

Lemma nolab_labs a l : forallb nolab l = true -> labs_ok cdefs crefs a l a.
Proof. intros H. destruct (nolab_plain l H) as [D R]. apply labs_plain; assumption. Qed.
Lemma labs_pre a b pre c : forallb nolab pre = true -> labs_ok cdefs crefs a c b -> labs_ok cdefs crefs a (pre ++ c) b.
Proof. intros H K. apply (labs_app _ _ a a b); [apply nolab_labs; exact H|exact K]. Qed.
Lemma labs_post a b post c : forallb nolab post = true -> labs_ok cdefs crefs a c b -> labs_ok cdefs crefs a (c ++ post) b.
Proof. intros H K. apply (labs_app _ _ a b b); [exact K|apply nolab_labs; exact H]. Qed.

Lemma only_1 i l : cdefs i = [] -> incl (crefs i) [l] -> refs_only cdefs crefs [i] l.
Proof. intros D R. split; unfold LabelGen.defs, LabelGen.refs; cbn [flat_map]; rewrite ?D, ?app_nil_r; [reflexivity|exact R]. Qed.
Lemma only_pre pre c l : forallb nolab pre = true -> refs_only cdefs crefs c l -> refs_only cdefs crefs (pre ++ c) l.
Proof.
  intros H [D R]. destruct (nolab_plain _ H) as [D0 R0]. split; [rewrite (defs_app cdefs), D0, D; reflexivity|].
  rewrite (refs_app crefs), R0. exact R.
Qed.
Lemma only_post post c l : forallb nolab post = true -> refs_only cdefs crefs c l -> refs_only cdefs crefs (c ++ post) l.
Proof.
  intros H [D R]. destruct (nolab_plain _ H) as [D0 R0]. split; [rewrite (defs_app cdefs), D0, D; reflexivity|].
  rewrite (refs_app crefs), R0, app_nil_r. exact R.
Qed.
End NoLab.
