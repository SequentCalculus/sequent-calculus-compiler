(* C08, forward simulation for HEAP statements: Let and Create on RISC-V,
   objects and closure environments of ANY number of fields (chains of blocks); `hclo_ok` of a new closure is built from
   Proof/RVKLayout.dispatch_layout_nz (landing conditional on an instruction in the clause code).  The counterpart of Proof/X86HSimHeapB.v.
   Let:    `r_store` of the arguments (hsim_store_any), then `LI` of the jump-table offset of the tag into the
           second register of the new position;
   Create: `r_store` of the captured variables, then `LA` of the label in front of the closure's code into
           the second register of the new position; that address satisfies `hclo_ok` (RVKClo.v): it - plus
           4k for two or more clauses - leads to the code `load of the captured environment ++ body` of
           clause k (dispatch_layout_nz), generated for the clause context followed by the captured context. *)
From Coq Require Import List ZArith NArith String Bool Lia FMapPositive Permutation.
From SCC Require Import Base.Sexp Lang.AxSyn Sem.AxSem Sem.AxHeap Model.ParMoves Model.Backend Model.RV Sem.RVSem Sem.RVWf
     Model.Linearize Model.LinCheck Generated.Constants Proof.LinBasics Proof.LinTyping
     Proof.RVSel Proof.SubstGraph Proof.SubstBackends Proof.RVSubst Proof.RVSimAddr Proof.BackendInv Proof.RVSimRel Proof.RVSimStmt
     Proof.RVSimClo Proof.RVHeapAbs Proof.RVHDefs Proof.RVHMem Proof.RVHBridge Proof.HRep Proof.RVKSimRel Proof.RVKSimStmt
     Proof.RVKSimStore Proof.RVKSimLoad Proof.RVHLayout Proof.RVKLayout Proof.RVKFrag Proof.RVKClo Proof.X86HAnn.
From SCC Require Model.Heap Proof.HeapMore Proof.HeapTrace Proof.HeapRep Proof.X86HSimHeapB.
Import ListNotations.
Open Scope Z_scope.
Open Scope list_scope.

Lemma same_kinds_intro (fs : list value) (sg : ctx) : List.length fs = List.length sg ->
  (forall i f b, nth_error fs i = Some f -> nth_error sg i = Some b -> chi_of f = bchi b /\ ty_of f = bty b) ->
  HRep.same_kinds fs sg.
Proof.
  revert sg. induction fs as [|f fs IH]; intros [|b sg] L H; cbn in L; try discriminate; constructor.
  - apply (H O); reflexivity.
  - apply IH; [lia|]. intros i f' b' Hf Hb. apply (H (S i)); assumption.
Qed.
Notation same_kt_nth := X86HSimHeapB.same_kt_nth.
Notation ty_name_Decl := X86HSimHeapB.ty_name_Decl.

(* the captured environment of a new closure stands for exactly the context it was taken from *)
Lemma ctx_of_env_bind (env : ctx) (vs : list value) ce :
  bind (vars env) vs = Some ce ->
  (forall i b v, nth_error env i = Some b -> nth_error vs i = Some v -> chi_of v = bchi b /\ ty_of v = bty b) ->
  HRep.ctx_of_env ce = env /\ map snd ce = vs.
Proof.
  revert vs ce. induction env as [|b env IH]; intros [|v vs] ce H K; cbn [vars map bind] in H; try discriminate.
  - inversion H; subst. split; reflexivity.
  - destruct (bind (map bvar env) vs) as [cr|] eqn:B; [|discriminate]. inversion H; subst ce.
    destruct (IH vs cr B) as [E1 E2]; [intros i b' v' Hb Hv; apply (K (S i)); assumption|].
    destruct (K O b v eq_refl eq_refl) as [K1 K2].
    split; [|cbn; now rewrite E2]. unfold HRep.ctx_of_env in *. cbn [map fst snd]. rewrite E1. f_equal.
    destruct b as [bv bc bt]. cbn in *. now rewrite K1, K2.
Qed.

Notation firstn_app_exact := X86HSimHeapB.firstn_app_exact.

Section HB.
Variable im : image.
Variable p : prog.
Variable stop : positive.
Hypothesis IMG : rimg_ok im.
Hypothesis FWD : fwd_ok im.
Hypothesis EVEN : forall pc a, PM.find pc (addr_of im) = Some a -> a mod 2 = 0.
Hypothesis SMALL : forall pc a, PM.find pc (addr_of im) = Some a -> a < 4611686018427387904 - 32.
Hypothesis STOPC : exists l, PM.find stop (code im) = Some (LAB l).
Hypothesis ENDC : PM.find (Pos.succ stop) (code im) = None.

(* what the data word of a closure points to: `hclo_ok im p stop` or a stronger predicate (Proof/RVHSimHeapC.v); a new
   closure satisfies `hclo_ok`, and Create asks for the step from there to `CLO` *)
Variable CLO : Z -> ident -> list clause -> ctx -> Prop.
Local Notation hrel := (hrel (ptypes p) CLO).
Local Notation hvrep := (hvrep (ptypes p) CLO).
Local Notation xrep := (HRep.xrep (ptypes p) CLO jump_length any_int).
Local Notation xflds := (HRep.xflds (ptypes p) CLO jump_length any_int).

(* the address a + 4k of entry k of a jump table is an address of the image (hclo_ok: the offset added by the repaired
   add_and_jump does not wrap) *)
Lemma table_entry_small pcl fresh cls c5 a k c :
  placed im pcl (([LAB fresh] ++ table_or_nil rv_backend cls fresh) ++ c5) ->
  PM.find pcl (addr_of im) = Some a -> nth_error cls k = Some c ->
  a + (if Nat.leb (List.length cls) 1 then 0 else jump_length (N.of_nat k)) < 4611686018427387904 - 32.
Proof.
  intros [CA _] AL Hk. destruct (Nat.leb (List.length cls) 1) eqn:LE; [rewrite Z.add_0_r; exact (SMALL _ _ AL)|].
  assert (Lk : (k < List.length cls)%nat) by (apply nth_error_Some; congruence).
  unfold table_or_nil in CA. rewrite LE in CA. rewrite <- !app_assoc in CA. cbn [app] in CA.
  set (full := LAB fresh :: code_table rv_backend cls fresh ++ c5) in *.
  assert (NJ : nth_error full (1 + k) = Some (JAL ZERO (fresh +++ "_" +++ show_ident (cl_xtor c)))).
  { unfold full. cbn [Nat.add nth_error]. rewrite nth_error_app1 by (rewrite code_table_length; lia). apply code_table_nth. exact Hk. }
  pose proof (addr_along im IMG full pcl a CA AL (1 + k)%nat _ NJ) as AJ.
  assert (SZ : size_of (firstn (1 + k) full) = 4 * Z.of_nat k).
  { unfold full. cbn [Nat.add firstn size_of isize]. rewrite firstn_app. replace (k - List.length (code_table rv_backend cls fresh))%nat with O by (rewrite code_table_length; lia).
    cbn [firstn]. rewrite app_nil_r, code_table_size by lia. lia. }
  rewrite SZ in AJ. unfold jump_length. rewrite nat_N_Z. exact (SMALL _ _ AJ).
Qed.

(* the kinds of the stored values are those of the bindings of the context suffix *)
Lemma suffix_kinds rest args he0 fsE hs s i b en :
  hrel (rest ++ args) (he0 ++ fsE) hs s -> List.length he0 = List.length rest ->
  nth_error args i = Some b -> nth_error fsE i = Some en -> chi_of (h_val en) = bchi b /\ ty_of (h_val en) = bty b /\ idn (h_id en) = idn (bvar b).
Proof.
  intros R L Hb He. destruct en as [[x v] q].
  destruct (hrel_vals_app (ptypes p) CLO rest args he0 fsE hs s i x v q R L He) as (b' & Hb' & V).
  assert (b' = b) by congruence. subst b'. cbn [h_val h_id fst snd].
  assert (EI : idn x = idn (bvar b)).
  { destruct (henv_ctx_nth (rest ++ args) (he0 ++ fsE) (List.length rest + i) x v q (hr_ids R)) as (b0 & Hb0 & E0).
    - rewrite nth_error_app2 by lia. replace (List.length rest + i - List.length he0)%nat with i by lia. exact He.
    - rewrite nth_error_app2 in Hb0 by lia. rewrite Nat.add_comm, Nat.add_sub in Hb0. congruence. }
  destruct V as [b z q t A B T Lg|b v q a t1 t2 A K1 K2 T1 T2 L1 L2 X]; cbn; auto.
Qed.

(* writing the second register of the next position *)
Lemma snd_write (s : rstate) n t a :
  rtpos Snd n = Ok t ->
  t = pos_reg Snd n /\ (n < 14)%nat /\
  (forall a0, hword (rset s t (Some a)) a0 = hword s a0) /\
  (forall r, r <> pos_reg Snd n -> r <> TEMP -> rget (rset s t (Some a)) r = rget s r) /\
  rget (rset s t (Some a)) (pos_reg Snd n) = Some a.
Proof.
  intros T. pose proof (rtpos_regs _ _ _ T) as (NZ & _). apply rtpos_val in T as [-> L].
  split; [reflexivity|]. split; [exact L|]. split; [intros a0; apply hword_rset|].
  split; [intros r NR _; apply rget_rset_other; congruence|]. apply rget_rset_same. exact NZ.
Qed.

Theorem hsim_let_clo c he hs s v t tag args next lc code lc' pc he0 fs tn hl fl cl :
  hrel c he hs s ->
  lin_check (sigs_of p) c (Let v t tag args next) = true ->
  rcs (ptypes p) (Let v t tag args next) c lc = Ok (code, lc') -> placed im pc code ->
  ty_name t = Some tn -> AxSem.split_last (List.length args) he = Some (he0, fs) ->
  InvA HEAP_BASE hs (roots he) hl fl cl -> P03 hs ->
  (forall en, In en he -> chi_of (h_val en) = Ext -> h_ptr en = 0) ->
  let res := Heap.alloc_object (map store_ptr fs) hs in
  Heap.frontier hs + 64 <= LIMIT -> Heap.frontier (snd res) + 64 <= LIMIT ->
  let c0 := firstn (List.length c - List.length args) c in
  exists c12 c3 lc1 s',
    code = c12 ++ c3 /\ rcs (ptypes p) next (c0 ++ [mkb v Prd t]) lc1 = Ok (c3, lc') /\
    lin_check (sigs_of p) (c0 ++ [mkb v Prd t]) next = true /\
    star im pc s (padd pc (List.length c12)) s' /\
    hrel (c0 ++ [mkb v Prd t]) (he0 ++ [(v, VObj tn tag (map h_val fs), fst res)]) (snd res) s'.
Proof.
  intros R LC CS PL TN SL IA K03 EX res HF1 HF2 c0'.
  destruct (cs_let _ _ _ _ _ _ _ _ _ _ CS) as (d & k & rest & arguments & c1 & lc1 & tmpv & c3 & LT & XP & BS & XS & TV & NX & ->).
  apply bsplit_last_app in BS as [-> LA1]. apply asplit_last_app in SL as [-> LF].
  apply ty_name_Decl in TN. subst t.
  pose proof (hrel_length R) as LEN. rewrite !app_length in LEN.
  assert (L0 : List.length he0 = List.length rest) by lia.
  (* the typing side *)
  cbn [lin_check] in LC. apply andb_true_iff in LC as [_ LC].
  destruct (split_lastn (List.length args) (rest ++ arguments)) as [[c0 tl]|] eqn:SPL; [|discriminate].
  apply split_lastn_Some in SPL as [SPE SPLn].
  apply app_inv_len in SPE as [<- <-]; [|apply (f_equal (@List.length binding)) in SPE; rewrite !app_length in SPE; lia].
  apply andb_true_iff in LC as [LC LCn]. apply andb_true_iff in LC as [CM AO].
  apply ctx_match_Prop in CM as [IDS SKT].
  unfold args_ok in AO. destruct (lookup_xtor (sigs_of p) (Decl tn) tag) as [sg|] eqn:LX; [|discriminate].
  apply sig_match_iff in AO.
  pose proof (SimFrag.lin_nodup _ _ _ LCn) as NDn.
  (* the store *)
  rewrite app_assoc in PL. apply placed_app in PL as [PL12 PL3]. apply placed_app in PL12 as [PL1 PL2].
  assert (IA' : InvA HEAP_BASE hs (roots (he0 ++ fs)) hl fl cl) by exact IA.
  destruct (hsim_store_any im (ptypes p) CLO rest arguments he0 fs hs s lc c1 lc1 pc hl fl cl R L0 IA' K03
              ltac:(intros en Hen; apply EX; apply in_app_iff; now right) XS PL1 HF1 HF2)
    as (s1 & X1 & R1 & Lt1 & XF1).
  fold res in R1, Lt1, XF1.
  (* the tag *)
  assert (T2 : rtpos Snd (List.length rest) = Ok tmpv) by (apply (rvt_fresh rest (mkb v Prd (Decl tn)) tmpv NDn TV)).
  destruct (snd_write s1 _ _ (jump_length k) T2) as (ET & L14 & HW2 & K2 & V2).
  set (s2 := rset s1 tmpv (Some (jump_length k))) in *.
  (* the constructor and the kinds of its fields *)
  assert (TW : HRep.tag_word (ptypes p) jump_length tn tag (map h_val fs) (jump_length k)).
  { unfold lookup_type in LT. destruct (find (fun d0 => ident_eqb (tname d0) tn) (ptypes p)) as [d0|] eqn:FD; [|discriminate].
    inversion LT; subst d0. unfold lookup_xtor, type_xtors in LX. cbn [sigs_of sg_types] in LX. rewrite FD in LX.
    destruct (find (fun x => ident_eqb (xname x) tag) (txtors d)) as [x|] eqn:FX; [|discriminate]. inversion LX; subst sg.
    exists d, k, x. repeat split; auto.
    apply same_kinds_intro.
    - rewrite map_length. apply same_kt_length in AO. lia.
    - intros i f b Hf Hb. rewrite nth_error_map in Hf. destruct (nth_error fs i) as [en|] eqn:He; [|discriminate].
      cbn in Hf. inversion Hf; subst f.
      assert (Li : (i < List.length arguments)%nat) by (apply nth_error_Some_lt in He; lia).
      destruct (nth_error arguments i) as [ba|] eqn:Ha; [|apply nth_error_None in Ha; lia].
      destruct (suffix_kinds rest arguments he0 fs hs s i ba en R L0 Ha He) as (K1 & K2' & _).
      destruct (same_kt_nth _ _ i ba SKT Ha) as (b1 & Hb1 & K3 & K4).
      destruct (same_kt_nth _ _ i b1 AO Hb1) as (b2 & Hb2 & K5 & K6).
      assert (b2 = b) by congruence. subst b2. split; congruence. }
  assert (EC0 : c0' = rest) by (unfold c0'; apply firstn_app_exact; exact LA1). rewrite EC0. clear EC0 c0'.
  exists (c1 ++ r_load_immediate tmpv (jump_length k)), c3, lc1, s2.
  split; [now rewrite app_assoc|]. split; [exact NX|]. split; [exact LCn|]. split.
  { rewrite app_length, padd_add. eapply star_trans; [exact X1|].
    unfold r_load_immediate in *. cbn [List.length]. rewrite padd_1.
    eapply star_next; [exact (proj1 PL2)|]. intros ad. reflexivity. }
  apply (hrel_push_ptr (ptypes p) CLO rest he0 (snd res) s1 s2 v (mkb v Prd (Decl tn)) (VObj tn tag (map h_val fs)) (fst res) (jump_length k));
    auto; try reflexivity; try (cbn; discriminate).
  constructor; [exact TW|exact XF1].
Qed.

Theorem hsim_create_clo c he hs s v t env cls next lc code lc' pc he0 cap tn ce hl fl cl :
  (forall a, hclo_ok im p stop a tn cls env -> CLO a tn cls env) ->
  hrel c he hs s ->
  lin_check (sigs_of p) c (Create v t (Some env) cls next) = true ->
  skipn (List.length c - List.length env) c = env -> ann_clauses_cr env cls = true ->
  clauses_k cls = true ->
  rcs (ptypes p) (Create v t (Some env) cls next) c lc = Ok (code, lc') -> placed im pc code ->
  ty_name t = Some tn -> AxSem.split_last (List.length env) he = Some (he0, cap) ->
  bind (vars env) (map h_val cap) = Some ce ->
  InvA HEAP_BASE hs (roots he) hl fl cl -> P03 hs ->
  (forall en, In en he -> chi_of (h_val en) = Ext -> h_ptr en = 0) ->
  let res := Heap.alloc_object (map store_ptr cap) hs in
  Heap.frontier hs + 64 <= LIMIT -> Heap.frontier (snd res) + 64 <= LIMIT ->
  let c0 := firstn (List.length c - List.length env) c in
  exists c12 c3 lc2 lc3 rest' s',
    code = c12 ++ c3 ++ rest' /\ rcs (ptypes p) next (c0 ++ [mkb v Cns t]) lc2 = Ok (c3, lc3) /\
    lin_check (sigs_of p) (c0 ++ [mkb v Cns t]) next = true /\
    star im pc s (padd pc (List.length c12)) s' /\
    hrel (c0 ++ [mkb v Cns t]) (he0 ++ [(v, VClo tn cls ce, fst res)]) (snd res) s'.
Proof.
  intros NEW R LC ANN ANC CH CS PL TN SL BD IA K03 EX res HF1 HF2 c0'.
  destruct (cs_create _ _ _ _ _ _ _ _ _ _ _ CS) as (rest & cenv & c1 & lc1 & tmpv & c3 & lc3 & c5 & BS & XS & TV & NX & CC & E).
  cbn [b_mark b_load_label b_label b_store rv_backend r_load_label] in E, XS. rewrite app_nil_l in E. subst code.
  apply bsplit_last_app in BS as [-> LA1]. apply asplit_last_app in SL as [-> LF].
  apply ty_name_Decl in TN. subst t.
  pose proof (hrel_length R) as LEN. rewrite !app_length in LEN.
  assert (L0 : List.length he0 = List.length rest) by lia.
  assert (ECE : cenv = env).
  { rewrite app_length, LA1 in ANN. replace (List.length rest + List.length env - List.length env)%nat with (List.length rest) in ANN by lia.
    rewrite skipn_app, skipn_all, Nat.sub_diag in ANN. exact ANN. }
  subst cenv.
  (* the typing side *)
  rewrite lin_check_create in LC. apply andb_true_iff in LC as [_ LC].
  destruct (split_lastn (List.length env) (rest ++ env)) as [[c0 tl]|] eqn:SPL; [|discriminate].
  apply split_lastn_Some in SPL as [SPE SPLn].
  apply app_inv_len in SPE as [<- <-]; [|apply (f_equal (@List.length binding)) in SPE; rewrite !app_length in SPE; lia].
  apply andb_true_iff in LC as [LC LCn]. apply andb_true_iff in LC as [LC LCc]. apply andb_true_iff in LC as [_ CO].
  pose proof (SimFrag.lin_nodup _ _ _ LCn) as NDn.
  set (fresh := type_label (Decl tn) (lc1 + 1)%N) in *.
  (* the store *)
  pose proof PL as PL0.
  apply placed_app in PL as [PL1 PL]. apply placed_app in PL as [PL2 PL]. apply placed_app in PL as [PL3 PL].
  assert (IA' : InvA HEAP_BASE hs (roots (he0 ++ cap)) hl fl cl) by exact IA.
  destruct (hsim_store_any im (ptypes p) CLO rest env he0 cap hs s lc c1 lc1 pc hl fl cl R L0 IA' K03
              ltac:(intros en Hen; apply EX; apply in_app_iff; now right) XS PL1 HF1 HF2)
    as (s1 & X1 & R1 & Lt1 & XF1).
  fold res in R1, Lt1, XF1.
  (* the label of the closure *)
  set (P := c1 ++ [LA tmpv fresh] ++ c3).
  set (pcl := padd pc (List.length P)).
  assert (PLL : placed im pcl (([LAB fresh] ++ table_or_nil rv_backend cls fresh) ++ c5)).
  { unfold pcl, P. rewrite !app_length, !padd_add. exact PL. }
  assert (CL0 : PM.find pcl (code im) = Some (LAB fresh)).
  { exact (proj1 (proj1 PLL O (LAB fresh) eq_refl)). }
  destruct (io_addr im IMG pcl _ CL0) as (a & AL & GE).
  assert (FL : find_label (labels im) fresh = Some pcl).
  { exact (proj2 PLL O fresh eq_refl). }
  pose proof (label_addr_of im fresh pcl a FL AL) as LAD.
  rewrite clauses_code_gclauses in CC.
  (* the closure *)
  assert (KIN : forall i b w, nth_error env i = Some b -> nth_error (map h_val cap) i = Some w -> chi_of w = bchi b /\ ty_of w = bty b).
  { intros i b w Hb Hw. rewrite nth_error_map in Hw. destruct (nth_error cap i) as [en|] eqn:He; [|discriminate].
    cbn in Hw. inversion Hw; subst w. destruct (suffix_kinds rest env he0 cap hs s i b en R L0 Hb He) as (K1 & K2 & _). auto. }
  destruct (ctx_of_env_bind env (map h_val cap) ce BD KIN) as [ECTX ESND].
  assert (HCLO : CLO a tn cls (HRep.ctx_of_env ce)).
  { rewrite ECTX. apply NEW. split; [exact CO|]. split; [split; [unfold CODE_BASE in GE; lia|exact (SMALL _ _ AL)]|].
    split; [exact (EVEN _ _ AL)|].
    intros k cl0 Hk.
    destruct (dispatch_layout_nz im stop IMG FWD STOPC ENDC (ptypes p) (fun cx lc0 => r_load env cx lc0) (fun cx => cx ++ env)
                pcl fresh cls c5 lc3 lc' a PLL CC AL k cl0 Hk)
      as (pcc & lcl & cl1 & lcb & cb & lcb' & _ & _ & LD & BD' & PLb & LAND).
    exists pcc, lcl, cl1, lcb, cb, lcb'. split; [exact LD|]. split; [exact BD'|]. split; [exact PLb|].
    pose proof (nth_error_In _ _ Hk) as Hin.
    split; [|split; [|split; [|split]]].
    - unfold lin_clauses_cr in LCc. rewrite forallb_forall in LCc. apply LCc. exact Hin.
    - unfold ann_clauses_cr in ANC. rewrite forallb_forall in ANC. apply ANC. exact Hin.
    - unfold clauses_k in CH. rewrite forallb_forall in CH. specialize (CH cl0 Hin). exact CH.
    - exact (table_entry_small pcl fresh cls c5 a k cl0 PLL AL Hk).
    - intros NZ. apply LAND. left. exact NZ. }
  (* the code address *)
  assert (T2 : rtpos Snd (List.length rest) = Ok tmpv) by (apply (rvt_fresh rest (mkb v Cns (Decl tn)) tmpv NDn TV)).
  destruct (snd_write s1 _ _ a T2) as (ET & L14 & HW2 & K2 & V2).
  set (s2 := rset s1 tmpv (Some a)) in *.
  assert (EC0 : c0' = rest) by (unfold c0'; apply firstn_app_exact; exact LA1). rewrite EC0. clear EC0 c0'.
  exists (c1 ++ [LA tmpv fresh]), c3, (lc1 + 1)%N, lc3, (([LAB fresh] ++ table_or_nil rv_backend cls fresh) ++ c5), s2.
  split; [now rewrite <- !app_assoc|]. split; [exact NX|]. split; [exact LCn|]. split.
  { rewrite app_length, padd_add. eapply star_trans; [exact X1|].
    cbn [List.length]. rewrite padd_1.
    eapply star_next; [exact (proj1 PL2)|]. intros ad. cbn [step]. rewrite LAD. reflexivity. }
  apply (hrel_push_ptr (ptypes p) CLO rest he0 (snd res) s1 s2 v (mkb v Cns (Decl tn)) (VClo tn cls ce) (fst res) a);
    auto; try reflexivity; try (cbn; discriminate).
  constructor; [exact HCLO|]. rewrite ESND. exact XF1.
Qed.
End HB.

(* at `CLO := hclo_ok im p stop` *)
Section HBClo.
Variable im : image.
Variable p : prog.
Variable stop : positive.
Hypothesis IMG : rimg_ok im.
Hypothesis FWD : fwd_ok im.
Hypothesis EVEN : forall pc a, PM.find pc (addr_of im) = Some a -> a mod 2 = 0.
Hypothesis SMALL : forall pc a, PM.find pc (addr_of im) = Some a -> a < 4611686018427387904 - 32.
Hypothesis STOPC : exists l, PM.find stop (code im) = Some (LAB l).
Hypothesis ENDC : PM.find (Pos.succ stop) (code im) = None.
Local Notation CLO := (hclo_ok im p stop).
Local Notation hrel := (hrel (ptypes p) CLO).

Theorem hsim_let c he hs s v t tag args next lc code lc' pc he0 fs tn hl fl cl :
  hrel c he hs s ->
  lin_check (sigs_of p) c (Let v t tag args next) = true ->
  rcs (ptypes p) (Let v t tag args next) c lc = Ok (code, lc') -> placed im pc code ->
  ty_name t = Some tn -> AxSem.split_last (List.length args) he = Some (he0, fs) ->
  InvA HEAP_BASE hs (roots he) hl fl cl -> P03 hs ->
  (forall en, In en he -> chi_of (h_val en) = Ext -> h_ptr en = 0) ->
  let res := Heap.alloc_object (map store_ptr fs) hs in
  Heap.frontier hs + 64 <= LIMIT -> Heap.frontier (snd res) + 64 <= LIMIT ->
  let c0 := firstn (List.length c - List.length args) c in
  exists c12 c3 lc1 s',
    code = c12 ++ c3 /\ rcs (ptypes p) next (c0 ++ [mkb v Prd t]) lc1 = Ok (c3, lc') /\
    lin_check (sigs_of p) (c0 ++ [mkb v Prd t]) next = true /\
    star im pc s (padd pc (List.length c12)) s' /\
    hrel (c0 ++ [mkb v Prd t]) (he0 ++ [(v, VObj tn tag (map h_val fs), fst res)]) (snd res) s'.
Proof. exact (hsim_let_clo im p CLO c he hs s v t tag args next lc code lc' pc he0 fs tn hl fl cl). Qed.

Theorem hsim_create c he hs s v t env cls next lc code lc' pc he0 cap tn ce hl fl cl :
  hrel c he hs s ->
  lin_check (sigs_of p) c (Create v t (Some env) cls next) = true ->
  skipn (List.length c - List.length env) c = env -> ann_clauses_cr env cls = true ->
  clauses_k cls = true ->
  rcs (ptypes p) (Create v t (Some env) cls next) c lc = Ok (code, lc') -> placed im pc code ->
  ty_name t = Some tn -> AxSem.split_last (List.length env) he = Some (he0, cap) ->
  bind (vars env) (map h_val cap) = Some ce ->
  InvA HEAP_BASE hs (roots he) hl fl cl -> P03 hs ->
  (forall en, In en he -> chi_of (h_val en) = Ext -> h_ptr en = 0) ->
  let res := Heap.alloc_object (map store_ptr cap) hs in
  Heap.frontier hs + 64 <= LIMIT -> Heap.frontier (snd res) + 64 <= LIMIT ->
  let c0 := firstn (List.length c - List.length env) c in
  exists c12 c3 lc2 lc3 rest' s',
    code = c12 ++ c3 ++ rest' /\ rcs (ptypes p) next (c0 ++ [mkb v Cns t]) lc2 = Ok (c3, lc3) /\
    lin_check (sigs_of p) (c0 ++ [mkb v Cns t]) next = true /\
    star im pc s (padd pc (List.length c12)) s' /\
    hrel (c0 ++ [mkb v Cns t]) (he0 ++ [(v, VClo tn cls ce, fst res)]) (snd res) s'.
Proof.
  exact (hsim_create_clo im p stop IMG FWD EVEN SMALL STOPC ENDC CLO c he hs s v t env cls next lc code lc' pc he0 cap tn ce hl fl cl
           (fun _ H => H)).
Qed.
End HBClo.
