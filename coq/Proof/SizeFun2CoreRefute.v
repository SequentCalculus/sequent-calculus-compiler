(* C19: the whole-pass bound of fun2core in the form `fun2core_size_statement` of Props/C19.v,
     size_cprog c <= c1 * size_fcprog p * (1 + parameters + binders of a definition),
   quantifies over all values of type fcprog, ill-scoped ones included, and is false of the model for
   the calibrated constant c1 = 12: a definition without any binder whose body mentions n variables
   that are bound nowhere, under k nested `case (if ..) { K => .. }`, shares k continuations with n
   parameters each.  (The type checker rejects such a program; for checked programs every typed
   occurrence refers to a parameter or binder, and the proved bound C19_fun2core_size counts the
   distinct typed occurrences instead.) *)
From Coq Require Import List ZArith NArith String Bool Lia.
From SCC Require Import Base.Sexp Lang.SynUtil Lang.FunSyn Lang.CoreSyn Lang.AxSize Model.Fun2Core Model.SizeFun.
Import ListNotations.
Open Scope string_scope.

Definition ty_u : fty := FDecl "U" [].
Definition xv (i : nat) : fterm := FVar ("x" ++ n_to_string (N.of_nat i)) (Some FI64) (Some FPrd).
Fixpoint sumvars (n : nat) : fterm := match n with O => FLit 0 | S m => FOp (xv n) FSum (sumvars m) end.
Definition ku : fterm := FCtor "K" [] (Some ty_u).
Fixpoint nest (k : nat) (inner : fterm) : fterm :=
  match k with
  | O => inner
  | S j => FCase (FIfC FEq (FLit 0) None ku ku (Some ty_u)) [] [FClause FData "K" [] [] (nest j inner)] (Some FI64)
  end.
Definition unscoped_witness : fcprog :=
  mkfcprog [mkfdata "U" [] [mkfctor "K" []]] [] [mkfdef "main" [] FI64 (nest 40 (sumvars 40))].
Definition core_size_of (p : fcprog) : N := match compile_prog p with Ok c => size_cprog c | Err _ => 0%N end.

Lemma unscoped_core_size : core_size_of unscoped_witness = 3966%N.
Proof. vm_compute. reflexivity. Qed.
Lemma unscoped_src_size : size_fcprog unscoped_witness = 322%N.
Proof. vm_compute. reflexivity. Qed.
Lemma unscoped_vars :
  fold_right N.max 0%N (map (fun d => len (used_binders (fdbody d) (fvars (fdctx d)))) (fcpdefs unscoped_witness)) = 0%N.
Proof. vm_compute. reflexivity. Qed.
Lemma unscoped_occ : fun_occ unscoped_witness = 40%N.
Proof. vm_compute. reflexivity. Qed.

Lemma core_size_of_inv : forall p n, core_size_of p = n -> n <> 0%N ->
  exists c, compile_prog p = Ok c /\ size_cprog c = n.
Proof.
  intros p n H Hn. unfold core_size_of in H. destruct (compile_prog p) as [c|e]; [exists c; auto | congruence].
Qed.

Lemma fun2core_size_statement_12_refuted :
  ~ (forall (p : fcprog) (c : cprog), compile_prog p = Ok c ->
       (size_cprog c <= 12 * size_fcprog p *
          (1 + fold_right N.max 0 (map (fun d => len (used_binders (fdbody d) (fvars (fdctx d)))) (fcpdefs p))))%N).
Proof.
  intros H. destruct (core_size_of_inv _ _ unscoped_core_size) as (c & E & S); [discriminate|].
  specialize (H _ _ E). rewrite S, unscoped_src_size, unscoped_vars in H. vm_compute in H. apply H. reflexivity.
Qed.
