(* Loads and the representation invariant: the precondition of `OLoadObj` follows from the chain
   invariant KI; after the load (either mode) KI holds for the roots "fields of the object ++ the
   other roots"; pointer slots are not touched. *)
From Coq Require Import List ZArith Lia Bool Permutation.
From SCC Require Import Model.Heap Proof.HeapMore Proof.HeapTrace Proof.HeapRep.
Import ListNotations.
Open Scope Z_scope.

Lemma release_hdr_other p s x : x <> p -> hdr (m (release p s) x) = hdr (m s x).
Proof. intros H. unfold release; cbn. now rewrite hdr_set_hdr_other. Qed.

Lemma load_object_release_ps : forall k p s x, ps (m (load_object_release k p s) x) = ps (m s x).
Proof. induction k as [|k IH]; intros p s x; cbn [load_object_release]; [apply release_ps|]. rewrite IH. apply release_ps. Qed.
Lemma load_object_release_hdr_other : forall k p s x,
  ~ In x (obj_blocks k (m s) p) -> hdr (m (load_object_release k p s) x) = hdr (m s x).
Proof.
  induction k as [|k IH]; intros p s x Hx; cbn [load_object_release obj_blocks] in *.
  - apply release_hdr_other. intros ->. apply Hx. now left.
  - rewrite IH.
    + apply release_hdr_other. intros ->. apply Hx. now left.
    + rewrite (obj_blocks_ext (m s)) by (intros; apply release_ps). intros Hin. apply Hx. now right.
Qed.

Lemma share_walk_ps : forall k p s x, ps (m (share_walk k p s) x) = ps (m s x).
Proof.
  induction k as [|k IH]; intros p s x; cbn [share_walk]; [apply share_list_ps|]. rewrite IH. apply share_list_ps.
Qed.
Lemma share_walk_hdr_other : forall k p s x,
  ~ In x (obj_fields k (m s) p) -> hdr (m (share_walk k p s) x) = hdr (m s x).
Proof.
  induction k as [|k IH]; intros p s x Hx; cbn [share_walk obj_fields] in *.
  - now apply share_list_hdr_other.
  - rewrite in_app_iff in Hx. rewrite IH.
    + apply share_list_hdr_other. tauto.
    + rewrite (obj_fields_ext (m s)) by (intros; apply share_list_ps). tauto.
Qed.
Lemma dec_hdr_other p s x : x <> p -> hdr (m (dec p s) x) = hdr (m s x).
Proof. intros H. unfold dec; cbn. now rewrite hdr_set_hdr_other. Qed.

Lemma load_object_ps k p s x : ps (m (load_object k p s) x) = ps (m s x).
Proof.
  unfold load_object, load_object_share. destruct (hdr (m s p) =? 0); [apply load_object_release_ps|].
  rewrite share_walk_ps. apply dec_ps.
Qed.

Lemma cnt_link_field (l : list Z) c :
  nth 2 l 0 = c -> c <> 0 -> In c (firstn 2 l ++ skipn 3 l) -> 2 <= cnt l c.
Proof.
  intros E Hc0 Hin. rewrite <- E in Hc0. rewrite (nth_split_ps l Hc0), E. rewrite cnt_app, cnt_cons.
  destruct (Z.eq_dec c c); [|congruence].
  apply in_app_iff in Hin as [Hin|Hin]; apply cnt_in_pos in Hin.
  - pose proof (cnt_nonneg (skipn 3 l) c). lia.
  - pose proof (cnt_nonneg (firstn 2 l) c). lia.
Qed.

Lemma field_not_link lk s R hl fl cl :
  Inv s R hl fl cl -> KI lk s R -> forall k p, reach (m s) R p -> lk p = k ->
  forall c, In c (obj_fields k (m s) p) -> c <> 0 ->
  forall x, reach (m s) R x -> lk x <> O -> link_of (m s) x <> c.
Proof.
  intros I K. induction k as [|k IH]; intros p Hp Hk c Hc Hc0 x Hx Hl E.
  - cbn [obj_fields] in Hc.
    destruct (link_sole s R hl fl cl lk x I K Hx Hl) as (_ & _ & _ & _ & U & _). rewrite E in U.
    pose proof (reach_root_counted _ _ _ _ _ _ I Hp) as Hpc.
    pose proof (U p ltac:(rewrite in_app_iff; auto) Hc) as Epx. subst p. congruence.
  - cbn [obj_fields] in Hc. apply in_app_iff in Hc as [Hc|Hc].
    + destruct (link_sole s R hl fl cl lk x I K Hx Hl) as (_ & _ & _ & _ & U & C1). rewrite E in U, C1.
      pose proof (reach_root_counted _ _ _ _ _ _ I Hp) as Hpc.
      pose proof (U p ltac:(rewrite in_app_iff; auto) (fields_in _ _ _ Hc)) as Epx. subst p.
      pose proof (cnt_link_field (ps (m s x)) c E Hc0 Hc). lia.
    + destruct (K p Hp ltac:(lia)) as (Hq0 & _ & Hlq).
      apply (IH (link_of (m s) p)) with (c := c) (x := x); auto; [|lia].
      eapply reach_slot; [exact Hp|now apply link_in|exact Hq0].
Qed.

Lemma load_object_KI base lk s R R0 hl fl cl p k j pl :
  InvA base s R hl fl cl -> KI lk s R -> Permutation R (p :: R0) -> p <> 0 ->
  lk p = k -> obj_fields k (m s) p = repeat 0 j ++ pl ->
  pre s R (OLoadObj k p) /\
  (exists hl' fl' cl', InvA base (load_object k p s) (nz pl ++ R0) hl' fl' cl') /\
  KI lk (load_object k p s) (nz pl ++ R0).
Proof.
  intros IA K HP Hp0 Hk HF. pose proof (proj1 IA) as I.
  assert (HpR : In p R) by (eapply Permutation_in; [symmetry; exact HP|now left]).
  assert (Hp : reach (m s) R p) by (apply reach_src; auto).
  destruct (KI_chain lk s R K k p Hp Hk) as (HL & Hch & Hchr).
  assert (HO : hdr (m s p) = 0 -> obj_ok k (m s) p) by (intros Hh; rewrite <- Hk; eapply KI_obj_ok; eauto).
  assert (Hnz : nz (obj_fields k (m s) p) = nz pl) by (rewrite HF, nz_app, nz_repeat0; reflexivity).
  (* the new roots are reachable from the old ones *)
  assert (Hsub : forall r, In r (nz pl ++ R0) -> r <> 0 -> reach (m s) R r).
  { intros r Hr Hr0. apply in_app_iff in Hr as [Hr|Hr].
    - apply in_nz in Hr as [Hr _]. eapply reach_trans; [|eapply (obj_fields_reach (m s) k p r HL); auto].
      + intros q [<-|[]] _. exact Hp.
      + rewrite HF, in_app_iff. now right.
    - apply reach_src; auto. eapply Permutation_in; [symmetry; exact HP|now right]. }
  assert (Hpre : pre s R (OLoadObj k p)) by (cbn [pre]; auto).
  split; [exact Hpre|].
  assert (Hinv : exists hl' fl' cl', InvA base (load_object k p s) (nz pl ++ R0) hl' fl' cl').
  { destruct (heap_inv_step base s R hl fl cl (OLoadObj k p) IA Hpre) as (hl' & fl' & cl' & I1 & _).
    exists hl', fl', cl'. cbn [step ghost] in I1. rewrite Hnz in I1. eapply invA_perm_R; [|exact I1].
    apply Permutation_app_head. apply (Permutation_cons_inv (a := p)).
    etransitivity; [symmetry; apply rem1_perm; exact HpR|exact HP]. }
  split; [exact Hinv|].
  intros x Hx Hl.
  assert (Hx1 : reach (m s) (nz pl ++ R0) x).
  { apply (reach_ext (m (load_object k p s)) (m s)) in Hx; auto. intros; symmetry; apply load_object_ps. }
  assert (Hx0 : reach (m s) R x) by (eapply reach_trans; [exact Hsub|exact Hx1]).
  destruct (link_sole s R hl fl cl lk x I K Hx0 Hl) as (Hc0 & Hc & Hh & HnR & U & _).
  destruct (K x Hx0 Hl) as (_ & _ & Hlk).
  unfold link_of in *. rewrite load_object_ps. set (c := nth 2 (ps (m s x)) 0) in *.
  split; [exact Hc0|]. split; [|exact Hlk].
  assert (Hcp : c <> p) by (intros E; rewrite E in HnR; contradiction).
  unfold load_object. destruct (Z.eqb_spec (hdr (m s p)) 0) as [Hh0|Hhn].
  - (* release: the chain blocks end on the reuse list, so none of them is reachable afterwards *)
    destruct (load_object_release_invA_hl base k p s R R0 hl fl cl IA HP (HO Hh0)) as (hl' & cl' & I1 & _ & _ & Hrel).
    rewrite Hnz in I1. pose proof (proj1 I1) as I1i.
    rewrite load_object_release_hdr_other; auto. intros Hin.
    (* c is a chain block other than p: its only referrer x is a chain block, which is reachable *)
    assert (Hxrel : In x hl').
    { apply Hrel. clear -Hin Hcp U HL Hchr I Hc0. unfold c in *.
      revert p Hin Hcp HL Hchr. induction k as [|k IH]; intros p Hin Hcp HL Hchr; cbn [obj_blocks] in *.
      - destruct Hin as [E|[]]. congruence.
      - destruct Hin as [E|Hin]; [congruence|].
        set (q := link_of (m s) p) in *.
        destruct (Z.eq_dec (nth 2 (ps (m s x)) 0) q) as [E|Hne].
        + left. apply U.
          * pose proof (reach_root_counted _ _ _ _ _ _ I (Hchr p (or_introl eq_refl))). rewrite in_app_iff. auto.
          * rewrite E. apply link_in. apply HL. right. destruct k; now left.
        + right. apply IH; auto.
          * intros b Hb. apply HL. now right.
          * intros b Hb. apply Hchr. now right. }
    assert (Hxcl : In x cl').
    { eapply reach_root_counted; [exact I1i|]. unfold load_object in Hx. destruct (Z.eqb_spec (hdr (m s p)) 0); [exact Hx|contradiction]. }
    destruct (proj1 (nodup3 hl' fl cl' x (i_nodup _ _ _ _ _ I1i)) Hxcl) as [N _]. contradiction.
  - (* share: only p and the fields change their headers *)
    unfold load_object_share. rewrite share_walk_hdr_other.
    + rewrite dec_hdr_other by exact Hcp. exact Hh.
    + rewrite (obj_fields_ext (m s)) by (intros; apply dec_ps). intros Hin.
      eapply (field_not_link lk s R hl fl cl I K k p Hp Hk c Hin Hc0 x Hx0 Hl). reflexivity.
Qed.
