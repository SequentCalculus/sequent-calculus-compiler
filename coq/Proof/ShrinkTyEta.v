(* Proof/ShrinkTyEta.v (C12, fragment 2) - the cases of the typing lemma with eta expansion: the clauses
   of eta expansions and the unknown cuts; lifted statements (the call is well-typed in the context of
   the lifted statement, the new definition in the context of its parameters); the critical pair at a
   declared type; and the typing lemma for all statements, [TL_all]. *)
From Coq Require Import List ZArith NArith String Bool Lia.
From SCC Require Import Proof.CoreInd.
From SCC Require Import Base.Sexp Lang.SynUtil Lang.CoreSyn Lang.AxSyn Sem.FsCheck Model.Shrink Model.LinCheck
     Model.WtDefs Proof.ShrinkProof Proof.ShrinkRn Proof.ShrinkSimBase Proof.ShrinkSimEta Proof.ShrinkTfv
     Proof.ShrinkSimCases Proof.ShrinkTyC Proof.ShrinkTyCases.
From SCC Require Sem.AxCheck.
Import ListNotations.
Open Scope list_scope.

Lemma lookup_b_self : forall env Ga b, NoDup (ids env) -> In b env -> AxCheck.lookup_b (env ++ Ga) (idn (bvar b)) = Some b.
Proof.
  induction env as [|b0 r IH]; intros Ga b Hnd Hin; [contradiction|]. cbn [ids map] in Hnd. inversion Hnd as [|? ? Hni Hnd']; subst.
  cbn [app AxCheck.lookup_b]. destruct Hin as [->|Hin]; [now rewrite N.eqb_refl|].
  destruct (N.eqb (idn (bvar b0)) (idn (bvar b))) eqn:E; [|now apply IH].
  apply N.eqb_eq in E. exfalso. apply Hni. rewrite E. unfold ids. apply in_map_iff. eauto.
Qed.
Lemma lookup_b_skip : forall env Ga i, ~ In i (ids env) -> AxCheck.lookup_b (env ++ Ga) i = AxCheck.lookup_b Ga i.
Proof.
  induction env as [|b0 r IH]; intros Ga i H; [reflexivity|]. cbn [app AxCheck.lookup_b]. cbn [ids map] in H.
  destruct (N.eqb (idn (bvar b0)) i) eqn:E; [apply N.eqb_eq in E; exfalso; apply H; now left|]. apply IH. intros Hi. apply H. now right.
Qed.
Lemma bound_skip_list : forall env Ga y c t, AxCheck.bound Ga y c t = None -> (forall i, In i (ids env) -> ~ In i (ids Ga)) ->
  AxCheck.bound (env ++ Ga) y c t = None.
Proof.
  intros env Ga y c t H Hdis. unfold AxCheck.bound in *. destruct (AxCheck.lookup_b Ga (idn y)) as [b|] eqn:E; [|discriminate].
  rewrite lookup_b_skip, E; [exact H|]. intros Hin. apply (Hdis _ Hin). eapply lookup_b_in; eauto.
Qed.
Lemma args_ok_env : forall env Ga sg, NoDup (ids env) -> (forall what, AxCheck.params_ok what env sg = None) ->
  forall what, AxCheck.args_ok what (env ++ Ga) env sg = None.
Proof.
  intros env Ga sg Hnd Hp what. eapply args_ok_sig; [|apply Hp]. apply args_ok_self.
  intros b Hb. eapply bound_intro; [apply lookup_b_self; eauto | reflexivity | reflexivity].
Qed.

Section TyEta.
Variable p : fsprog.
Variable ds' : list def.
Notation data := (fspdata p).
Notation codata := (fspcodata p).
Notation defs := (fspdefs p).
Notation m0 := (fspmax p).
Notation D := (data ++ [cont_int]).
Notation ts := (ts_of p).
Notation TLs := (TLs p ds').
Notation TLn := (TLn p ds').
Hypothesis Hdisj : forall n, find_decl data n <> None -> find_decl codata n = None.
Hypothesis Hcont : find_decl data cont_name = None /\ find_decl codata cont_name = None.
Hypothesis Hfields : forall d, In d (data ++ codata) -> forall sg, In sg (ctxtors d) -> forall b, In b (cxargs sg) -> ty_ok data codata (cbty b) = true.
Hypothesis Hxnd : forall d, In d (data ++ codata) -> nodup_by cident_eqb (map cxname (ctxtors d)) = true.
Hypothesis Hds_find : forall d, In d ds' -> find (fun d' => ident_eqb (dname d') (dname d)) ds' = Some d.
Hypothesis Hds_defs : forall d, In d defs -> exists t, In (mkd (fsdname d) (shrink_context codata (fsdctx d)) t) ds'.

Definition sx (x : cident * cctx) : xtorsig := mkx (fst x) (shrink_context codata (snd x)).
Lemma sx_xtor_list : forall d, map sx (xtor_list d) = map (shrink_xtor codata) (ctxtors d).
Proof. intros d. unfold xtor_list. rewrite map_map. reflexivity. Qed.

(* every xtor of a declaration is found under its name *)
Lemma find_cxtor_self : forall d sg, In d (data ++ codata) -> In sg (ctxtors d) -> find_cxtor d (cxname sg) = Some sg.
Proof.
  intros d sg Hd Hsg. pose proof (Hxnd d Hd) as Hn. unfold find_cxtor. induction (ctxtors d) as [|s r IH]; [contradiction|].
  simpl in *. apply andb_prop in Hn as [Hn1 Hn2]. destruct Hsg as [->|Hsg]; [now rewrite cident_eqb_refl|].
  destruct (cident_eqb (cxname s) (cxname sg)) eqn:E; [|now apply IH].
  apply cident_eqb_eq in E. apply negb_true_iff in Hn1. exfalso.
  assert (existsb (cident_eqb (cxname s)) (map cxname r) = true); [|congruence].
  apply existsb_exists. exists (cxname sg). split; [now apply in_map | now apply cident_eqb_eq].
Qed.

(* the clauses of an eta-expanded variable cut *)
Lemma unk_cls_ok : forall th Ga T dT ve,
  AxCheck.find_type ts T = Some dT -> AxCheck.bound Ga (th ve) Cns (Decl T) = None ->
  (forall y, (m0 < idn y)%N -> th y = y) ->
  forall xs st cls st', unknown_clauses codata ve (Decl T) xs st = (cls, st') -> (m0 <= s_max st)%N ->
  (forall x, In x xs -> AxCheck.find_xtor dT (fst x) = Some (sx x)) ->
  (forall i, (s_max st < i <= s_max st')%N -> ~ In i (ids Ga)) ->
  cls_ok ts ds' Ga (arn_cls th cls) (map sx xs).
Proof.
  intros th Ga T dT ve HT Hve Hth. induction xs as [|[xt a] r IH]; intros st cls st' H Hm Hx Hfr; simpl in H.
  - inv H. constructor.
  - destruct (fresh_env _ st) as [env st1] eqn:He. destruct (unknown_clauses _ _ _ r st1) as [r' st2] eqn:Hr. inv H.
    pose proof (fresh_env_shape _ _ _ _ He) as (Hlen & Hm1 & _ & Hrng & Hnd). destruct (unknown_clauses_frame _ _ _ _ _ _ _ Hr) as (Hm2 & _ & _).
    rewrite <- ids_vars in Hnd.
    assert (Hdis : forall i, In i (ids env) -> ~ In i (ids Ga)).
    { intros i Hi. apply Hfr. rewrite ids_vars in Hi. apply in_map_iff in Hi as (y & <- & Hy). apply Hrng in Hy. lia. }
    assert (Hfix : arn_ctx th env = env).
    { apply arn_ctx_fix. intros y Hy. apply Hth. apply Hrng in Hy. lia. }
    cbn [arn_cls map fst snd]. constructor.
    + cbn [fst snd sx xname xargs]. unfold shrink_identifier. split; [reflexivity|].
      split; [eapply params_ok_fresh_env; eauto|]. split; [apply fresh_all_intro; auto|].
      cbn [arn]. rewrite Hfix. eapply ck_invoke; [exact HT | apply (Hx (xt, a)); now left | apply bound_skip_list; auto |].
      cbn [sx xargs snd]. apply args_ok_env; [exact Hnd | eapply params_ok_fresh_env; eauto].
    + apply (IH st1 r' st' Hr); [lia | intros x Hxin; apply Hx; now right | intros i Hi; apply Hfr; lia].
Qed.

(* the clauses of an eta-expanded critical pair: each binds the xtor and continues with the renamed expanded side *)
Lemma crit_cls_ok : forall th Ga T dT ve se,
  AxCheck.find_type ts T = Some dT -> (forall y, (m0 < idn y)%N -> th y = y) ->
  forall xs st cls st', critical_clauses codata ve (Decl T) se xs st = (cls, st') -> (m0 <= s_max st)%N ->
  (forall x, In x xs -> AxCheck.find_xtor dT (fst x) = Some (sx x)) ->
  (forall i, (s_max st < i <= s_max st')%N -> ~ In i (ids Ga)) ->
  (forall env var, NoDup (ids env) -> (forall i, In i (idn var :: ids env) -> (s_max st < i <= s_max st')%N) -> ~ In (idn var) (ids env) ->
     acheck ts ds' (mkb var Prd (Decl T) :: env ++ Ga) (arn (fun y => th (ax_subst_ident [(cid_id ve, var)] y)) se) = None) ->
  cls_ok ts ds' Ga (arn_cls th cls) (map sx xs).
Proof.
  intros th Ga T dT ve se HT Hth. induction xs as [|[xt a] r IH]; intros st cls st' H Hm Hx Hfr Hse; simpl in H.
  - inv H. constructor.
  - destruct (fresh_env _ st) as [env sta] eqn:He.
    destruct (critical_clauses _ _ _ _ r _) as [r' stc] eqn:Hr. inv H.
    pose proof (fresh_env_shape _ _ _ _ He) as (Hlen & Hm1 & _ & Hrng & Hnd). destruct (critical_clauses_frame _ _ _ _ _ _ _ _ Hr) as (Hm2 & _ & _).
    cbn [s_max] in Hm2. rewrite <- ids_vars in Hnd. unfold shrink_identifier.
    set (var := (fst ve, N.succ (s_max sta))) in *.
    assert (Hrng' : forall i, In i (ids env) -> (s_max st < i <= s_max sta)%N).
    { intros i Hi. rewrite ids_vars in Hi. apply in_map_iff in Hi as (y & <- & Hy). now apply Hrng. }
    assert (Hdis : forall i, In i (ids env) -> ~ In i (ids Ga)).
    { intros i Hi. apply Hfr. apply Hrng' in Hi. lia. }
    assert (Hfix : arn_ctx th env = env).
    { apply arn_ctx_fix. intros y Hy. apply Hth. apply Hrng in Hy. lia. }
    assert (Hvar_env : ~ In (idn var) (ids env)).
    { intros Hi. apply Hrng' in Hi. unfold idn, var in Hi. cbn [snd] in Hi. lia. }
    assert (Hvar_Ga : ~ In (idn var) (ids Ga)).
    { apply Hfr. unfold idn, var. cbn [snd]. lia. }
    cbn [arn_cls map fst snd]. constructor.
    + cbn [fst snd sx xname xargs]. split; [reflexivity|].
      split; [eapply params_ok_fresh_env; eauto|]. split; [apply fresh_all_intro; auto|].
      cbn [arn]. rewrite Hfix. eapply ck_let; [exact HT | apply (Hx (xt, a)); now left | | |].
      * cbn [sx xargs snd]. apply args_ok_env; [exact Hnd | eapply params_ok_fresh_env; eauto].
      * apply fresh_for_intro. unfold ids. rewrite map_app. intros Hin. apply in_app_or in Hin as [Hin|Hin]; contradiction.
      * rewrite ax_subst_is_arn, arn_comp. apply Hse; auto.
        intros i [<-|Hi]; [unfold idn, var; cbn [snd]; lia | apply Hrng' in Hi; lia].
    + apply (IH _ r' st' Hr); [cbn [s_max]; lia | intros x Hxin; apply Hx; now right | intros i Hi; apply Hfr; cbn [s_max] in Hi; lia |].
      intros env0 var0 Hnd0 Hr0 Hv0. apply Hse; auto. intros i Hi. apply Hr0 in Hi. cbn [s_max] in Hi. lia.
Qed.

Lemma xtors_found : forall d, In d (data ++ codata) ->
  forall x, In x (xtor_list d) -> AxCheck.find_xtor (shrink_declaration codata d) (fst x) = Some (sx x).
Proof.
  intros d Hd x Hx. unfold xtor_list in Hx. apply in_map_iff in Hx as (sg & <- & Hsg). cbn [fst].
  rewrite (find_xtor_shrink codata d (cxname sg) sg (find_cxtor_self d sg Hd Hsg)). reflexivity.
Qed.
Lemma th_fresh : forall G rho th st, inv p G rho th st -> forall y, (m0 < idn y)%N -> th y = y.
Proof. intros G rho th st Hinv y Hy. apply (inv_th _ _ _ _ _ Hinv). intros Hin. apply (inv_le _ _ _ _ _ Hinv) in Hin. unfold idn, cid_id in *. lia. Qed.

Lemma tl_unknown : forall k c1 x t1 ty c2 b t2, TLs (S k) (FsCut (FsXVar c1 x t1) ty (FsXVar c2 b t2)).
Proof.
  intros k c1 x t1 ty c2 b t2. tstart. cbn [rn_stmt rn_term shrink_step shrink_cut] in Hsh.
  apply cut_typing in Hck as (Hty & Hcp & Hck).
  apply var_typing in Hcp as Hcx.
  apply var_typing in Hck as Hcb.
  apply nc_cut in Hnc as [Hncx Hncb]. cbn [nc_term] in Hncx, Hncb.
  destruct ty as [|T].
  - cbn [shrink_unknown_cuts] in Hsh. inv Hsh. split; [|split; [reflexivity | exact Hlw]].
    cbn [arn invoke_ret]. unfold arn_ctx, arn_binding, shrink_identifier, cont_ty. cbn [map bvar bchi bty].
    eapply ck_invoke; [apply (find_type_cont p Hcont) | apply find_xtor_shrink; reflexivity | |].
    + apply (occ_bound p _ _ _ _ b CCns CI64 Hg Hcb Hncb). occ.
    + intros what. cbn. pose proof (occ_bound p _ _ _ _ x CPrd CI64 Hg Hcx Hncx ltac:(occ)) as Hb. cbn in Hb. rewrite Hb. reflexivity.
  - unfold shrink_unknown_cuts, xtors_of in Hsh. cbn [e_codata e_data] in Hsh. unfold ty_ok in Hty.
    destruct (find_decl codata T) as [d|] eqn:Hdc.
    + assert (Hco : is_codata codata (CDecl T) = true) by (eapply codata_is_codata; eauto).
      rewrite Hco in Hsh. unfold lookup_type_declaration in Hsh. unfold find_decl in Hdc. rewrite Hdc in Hsh. cbn [sbind] in Hsh.
      fold (xtor_list d) in Hsh. fold (find_decl codata T) in Hdc.
      destruct (unknown_clauses codata (rho x) (shrink_ty (CDecl T)) (xtor_list d) st) as [clauses st2] eqn:Euc. inv Hsh.
      destruct (unknown_clauses_frame _ _ _ _ _ _ _ Euc) as (Hm2 & Hl2 & _).
      split; [|split; [|intros d0 Hd0; apply Hlw; rewrite <- Hl2; exact Hd0]].
      * rewrite arn_switch. cbn [shrink_ty]. unfold shrink_identifier.
        eapply ck_switch; [apply (find_type_codata p Hdisj Hcont _ _ Hdc) | |].
        -- pose proof (occ_bound p _ _ _ _ b CCns (CDecl T) Hg Hcb Hncb ltac:(occ)) as Hb.
           rewrite (proj2 (sb_codata p b T Hco)) in Hb. exact Hb.
        -- cbn [shrink_declaration txtors]. rewrite <- sx_xtor_list.
           eapply (unk_cls_ok th Ga T _ (rho x) (find_type_codata p Hdisj Hcont _ _ Hdc)); eauto.
           ++ pose proof (occ_bound p _ _ _ _ x CPrd (CDecl T) Hg Hcx Hncx ltac:(occ)) as Hb.
              rewrite (proj1 (sb_codata p x T Hco)) in Hb. exact Hb.
           ++ eapply th_fresh; eauto.
           ++ apply (inv_st _ _ _ _ _ Hinv).
           ++ apply xtors_found. apply in_or_app. right. eapply find_decl_in; eauto.
           ++ intros i Hi. eapply ginv_fresh; eauto.
      * rewrite pre_linear_switch. clear -Euc. revert st clauses st' Euc. induction (xtor_list d) as [|[xt a] r IH]; intros st clauses st2 H; simpl in H.
        -- inv H. reflexivity.
        -- destruct (fresh_env _ st) as [env st1]. destruct (unknown_clauses _ _ _ r st1) as [r' st3] eqn:Hr. inv H. cbn [forallb snd pre_linear]. eapply IH; eauto.
    + destruct (find_decl data T) as [d|] eqn:Hdd; [|discriminate Hty].
      assert (Hco : is_codata codata (CDecl T) = false) by (eapply data_not_codata; eauto).
      rewrite Hco in Hsh. rewrite (lookup_decl_data p _ _ Hdd) in Hsh. cbn [sbind] in Hsh.
      fold (xtor_list d) in Hsh.
      destruct (unknown_clauses codata (rho b) (shrink_ty (CDecl T)) (xtor_list d) st) as [clauses st2] eqn:Euc. inv Hsh.
      destruct (unknown_clauses_frame _ _ _ _ _ _ _ Euc) as (Hm2 & Hl2 & _).
      split; [|split; [|intros d0 Hd0; apply Hlw; rewrite <- Hl2; exact Hd0]].
      * rewrite arn_switch. cbn [shrink_ty]. unfold shrink_identifier.
        eapply ck_switch; [apply (find_type_data p _ _ Hdd) | |].
        -- pose proof (occ_bound p _ _ _ _ x CPrd (CDecl T) Hg Hcx Hncx ltac:(occ)) as Hb.
           rewrite (proj1 (sb_data p x T Hco)) in Hb. exact Hb.
        -- cbn [shrink_declaration txtors]. rewrite <- sx_xtor_list.
           eapply (unk_cls_ok th Ga T _ (rho b) (find_type_data p _ _ Hdd)); eauto.
           ++ pose proof (occ_bound p _ _ _ _ b CCns (CDecl T) Hg Hcb Hncb ltac:(occ)) as Hb.
              rewrite (proj2 (sb_data p b T Hco)) in Hb. exact Hb.
           ++ eapply th_fresh; eauto.
           ++ apply (inv_st _ _ _ _ _ Hinv).
           ++ apply xtors_found. apply in_or_app. left. eapply find_decl_in; eauto.
           ++ intros i Hi. eapply ginv_fresh; eauto.
      * rewrite pre_linear_switch. clear -Euc. revert st clauses st' Euc. induction (xtor_list d) as [|[xt a] r IH]; intros st clauses st2 H; simpl in H.
        -- inv H. reflexivity.
        -- destruct (fresh_env _ st) as [env st1]. destruct (unknown_clauses _ _ _ r st1) as [r' st3] eqn:Hr. inv H. cbn [forallb snd pre_linear]. eapply IH; eauto.
Qed.

Lemma Forall2_nth : forall {X Y} (R : X -> Y -> Prop) l1 l2 j a b, Forall2 R l1 l2 ->
  nth_error l1 j = Some a -> nth_error l2 j = Some b -> R a b.
Proof.
  intros X Y R l1 l2 j a b H. revert j. induction H as [|x y l1 l2 Hxy _ IH]; intros [|j] Ha Hb; simpl in *; try discriminate.
  - now inv Ha; inv Hb.
  - eauto.
Qed.

(* [TLs] for an arbitrary shrinking function R: shrink_stmt k E, or lift *)
Definition TLr (R : fsstmt -> sst -> shres (stmt * sst)) (s : fsstmt) : Prop :=
  forall G rho th st t st' Ga,
    inv p G rho th st ->
    check_stmt data codata defs G s = None -> ub_stmt (cids G) s = true -> ib_stmt m0 s = true ->
    nc_stmt (cvars G) s = true -> decl_ok p G ->
    R (rn_stmt rho s) st = SOk (t, st') ->
    grel p (fun x => occurs x s) (fun x => th (rho x)) Ga G -> ginv p Ga G st st' ->
    lifted_in' ds' st' -> lift_wt p ds' st ->
    acheck ts ds' Ga (arn th t) = None /\ pre_linear t = true /\ lift_wt p ds' st'.
Lemma TLs_TLr : forall k s, TLs k s -> forall lbl, TLr (shrink_stmt k (mksenv D codata lbl)) s.
Proof. intros k s H lbl G rho th st t st' Ga. apply H. Qed.

Lemma ty_declared_shrink : forall b, ty_ok data codata (cbty b) = true -> AxCheck.ty_declared ts (bty (shrink_binding codata b)) = true.
Proof.
  intros [v c t] H. cbn [cbty] in H. unfold shrink_binding. cbn [cbty cbchi cbvar].
  destruct t as [|T]; cbn [cty_eqb].
  - destruct c; cbn [cchi_eqb bty AxCheck.ty_declared]; [reflexivity|]. unfold shrink_identifier. now rewrite (find_type_cont p Hcont).
  - assert (Hd : AxCheck.ty_declared ts (shrink_ty (CDecl T)) = true).
    { cbn [shrink_ty AxCheck.ty_declared]. unfold shrink_identifier. unfold ty_ok in H.
      destruct (find_decl data T) as [d|] eqn:E1; [now rewrite (find_type_data p _ _ E1)|].
      destruct (find_decl codata T) as [d|] eqn:E2; [now rewrite (find_type_codata p Hdisj Hcont _ _ E2) | discriminate]. }
    destruct (_ || _); exact Hd.
Qed.
Lemma args_ok_direct : forall th Ga args sg,
  (forall a, In a args -> AxCheck.bound Ga (th (cbvar a)) (bchi (shrink_binding codata a)) (bty (shrink_binding codata a)) = None) ->
  Forall2 (fun a s => cbchi a = cbchi s /\ cbty a = cbty s) args sg ->
  forall what, AxCheck.args_ok what Ga (arn_ctx th (shrink_context codata args)) (shrink_context codata sg) = None.
Proof.
  intros th Ga args sg Hb Hsig what. induction Hsig as [|a s args sg [Hc Ht] _ IH]; [reflexivity|].
  cbn [shrink_context arn_ctx map AxCheck.args_ok]. unfold arn_binding. cbn [bchi bty bvar]. rewrite shrink_binding_var. unfold AxCheck.same_sig. cbn [bchi bty bvar].
  rewrite (Hb a (or_introl eq_refl)).
  destruct (shrink_binding_sig codata a s Hc Ht) as [F1 F2]. rewrite F1, F2, chi_eqb_refl, ty_eqb_refl. cbn [andb AxCheck.ensure].
  apply IH. intros a0 Ha0. apply Hb. now right.
Qed.

Lemma lift_typed : forall k, TLn k -> forall lbl s, TLr (lift (shrink_stmt k (mksenv D codata lbl)) (mksenv D codata lbl)) s.
Proof.
  intros k IH lbl s G rho th st t st' Ga Hinv Hck Hub Hib Hnc Hdecl Hsh Hg Hgi Hlin Hlw.
  destruct (lift_closed _ _ _ _ _ _ Hsh) as (Hsorted & Hndf & Hndp & Hsig & label & body & st3 & Hname & Hlt & _ & -> & Hrec & ->).
  cbn [e_codata] in *.
  set (fvs := typed_free_vars (rn_stmt rho s)) in *. set (params := fresh_params fvs (s_max st)) in *.
  set (dl := mkd label (shrink_context codata params) body) in *.
  rewrite subst_is_rn, rn_comp in Hrec.
  assert (Hdl : In dl ds') by (apply Hlin; now left).
  assert (Hlin3 : lifted_in' ds' st3) by (intros d Hd; apply Hlin; now right).
  destruct (typed_free_vars_spec p rho th st s G Hinv Hck Hnc Hub Hib) as [Hcompl Hsound]. fold fvs in Hcompl, Hsound.
  assert (Hlenp : List.length params = List.length fvs) by (eapply Forall2_len; eauto).
  assert (Hfvs_rng : forall fv, In fv fvs -> In (cid_id (cbvar fv)) (cids G) \/ (m0 < cid_id (cbvar fv))%N).
  { intros fv Hfv. destruct (Hsound fv Hfv) as (b & Hb & _ & ->). cbn [B cbvar]. apply (inv_rng _ _ _ _ _ Hinv). exact Hb. }
  assert (Hpar_ids : forall i, In i (cids params) -> (s_max st < i <= s_max st + N.of_nat (List.length fvs))%N).
  { intros i Hi. now apply fresh_params_ids in Hi. }
  assert (Hpar_rng : forall z, In z (cvars params) -> (m0 < cid_id z)%N).
  { intros z Hz. assert (Hi : In (cid_id z) (cids params)) by (unfold cvars in Hz; apply in_map_iff in Hz as (b & <- & Hb); unfold cids; apply in_map_iff; eauto).
    apply Hpar_ids in Hi. pose proof (inv_st _ _ _ _ _ Hinv). lia. }
  set (st2 := mksst (snd label) (s_lifted st) (label :: s_used st)) in *.
  set (rho' := fun x => subst_ident (combine (cids fvs) (cvars params)) (rho x)).
  assert (Hinv' : inv p G rho' (fun x => x) st2).
  { constructor.
    - apply (inv_nd _ _ _ _ _ Hinv).
    - apply (inv_le _ _ _ _ _ Hinv).
    - pose proof (inv_st _ _ _ _ _ Hinv). cbn [st2 s_max]. lia.
    - intros x Hx Hxm. unfold rho'. rewrite (inv_rho _ _ _ _ _ Hinv); auto. apply subst_ident_notin. intros Hin. apply map_fst_combine_incl in Hin.
      unfold cids in Hin. apply in_map_iff in Hin as (fv & Efv & Hfv). destruct (Hfvs_rng fv Hfv) as [H|H]; [apply Hx; now rewrite <- Efv | rewrite Efv in H; lia].
    - reflexivity.
    - intros b Hb. unfold rho'. destruct (subst_ident_range (combine (cids fvs) (cvars params)) (rho (cbvar b))) as [E|E].
      + rewrite E. apply (inv_rng _ _ _ _ _ Hinv). exact Hb.
      + apply map_snd_combine_incl in E. right. now apply Hpar_rng.
    - intros x y Hxy. exact Hxy. }
  (* variables of the context whose images share an id have the same AxCut signature *)
  assert (Hsame : forall b1 b2, In b1 G -> In b2 G -> occurs (cbvar b1) s -> occurs (cbvar b2) s ->
            cid_id (rho (cbvar b1)) = cid_id (rho (cbvar b2)) ->
            bchi (shrink_binding codata b1) = bchi (shrink_binding codata b2) /\ bty (shrink_binding codata b1) = bty (shrink_binding codata b2)).
  { intros b1 b2 H1 H2 O1 O2 E. destruct (Hg b1 H1 O1) as (x1 & L1 & C1 & T1). destruct (Hg b2 H2 O2) as (x2 & L2 & C2 & T2).
    cbn beta in L1, L2. rewrite (inv_P _ _ _ _ _ Hinv _ _ E) in L1. rewrite L1 in L2. injection L2 as <-. split; congruence. }
  assert (Hndp' : NoDup (ids (shrink_context codata params))) by (rewrite ids_shrink_context; exact Hndp).
  assert (Hg' : grel p (fun x => occurs x s) (fun x => (fun y => y) (rho' x)) (shrink_context codata params) G).
  { intros b Hb Hocc. pose proof (Hcompl b Hb Hocc) as HB.
    assert (Hid : In (cid_id (rho (cbvar b))) (cids fvs)) by (unfold cids; apply in_map_iff; exists (B rho b); split; [reflexivity | exact HB]).
    destruct (subst_combine_first (cids fvs) (cvars params) (rho (cbvar b))) as (jx & Hz & Hi); [unfold cids, cvars; rewrite !map_length; lia | exact Hid|].
    fold (rho' (cbvar b)) in Hz. cbn beta.
    unfold cids in Hi. rewrite nth_error_map in Hi. destruct (nth_error fvs jx) as [fvj|] eqn:Efv; [|discriminate]. cbn [option_map] in Hi. injection Hi as Hi.
    unfold cvars in Hz. rewrite nth_error_map in Hz. destruct (nth_error params jx) as [pj|] eqn:Epj; [|discriminate]. cbn [option_map] in Hz. injection Hz as Hz.
    assert (Hpin : In (shrink_binding codata pj) (shrink_context codata params)) by (unfold shrink_context; apply in_map; eapply nth_error_In; eauto).
    pose proof (lookup_b_self (shrink_context codata params) [] _ Hndp' Hpin) as Hl. rewrite app_nil_r, shrink_binding_var, Hz in Hl.
    exists (shrink_binding codata pj). split; [exact Hl|].
    destruct (Forall2_nth _ _ _ _ _ _ Hsig Epj Efv) as (_ & Pc & Pt). destruct (shrink_binding_sig codata pj fvj Pc Pt) as [Q1 Q2].
    destruct (Hsound fvj (nth_error_In _ _ Efv)) as (b2 & Hb2 & Ho2 & ->).
    destruct (shrink_binding_sig codata (B rho b2) b2 eq_refl eq_refl) as [R1 R2].
    destruct (Hsame b2 b Hb2 Hb Ho2 Hocc Hi) as [S1 S2]. split; congruence. }
  assert (Hgi' : ginv p (shrink_context codata params) G st2 st3).
  { intros i Hi. rewrite ids_shrink_context in Hi. apply Hpar_ids in Hi. pose proof (inv_st _ _ _ _ _ Hinv). split; [right; lia|]. cbn [st2 s_max]. lia. }
  destruct (IH s lbl G rho' (fun x => x) st2 body st3 _ Hinv' Hck Hub Hib Hnc Hdecl Hrec Hg' Hgi' Hlin3 Hlw) as (T1 & T2 & T3).
  rewrite arn_id in T1.
  split; [|split; [reflexivity|]].
  - cbn [arn]. eapply ck_call; [apply (Hds_find _ Hdl)|]. cbn [dl dctx].
    apply args_ok_direct.
    + intros fv Hfv. destruct (Hsound fv Hfv) as (b & Hb & Hocc & ->). cbn [B cbvar].
      destruct (shrink_binding_sig codata (B rho b) b eq_refl eq_refl) as [R1 R2]. cbn [B] in R1, R2. rewrite R1, R2.
      apply (grel_bound p _ _ _ _ b Hg Hb Hocc).
    + clear -Hsig. induction Hsig as [|x y l1 l2 (_ & H1 & H2) _ IH]; constructor; auto.
  - intros d [<-|Hd]; [|now apply T3]. split; [exact T1|]. split; [exact T2|]. split; [exact Hndp'|].
    cbn [dl dctx]. unfold shrink_context. rewrite forallb_map. apply forallb_forall. intros pj Hpj.
    destruct (In_nth_error _ _ Hpj) as [jx Epj]. destruct (nth_error fvs jx) as [fvj|] eqn:Efv.
    2:{ apply nth_error_None in Efv. assert ((jx < List.length params)%nat) by (apply nth_error_Some; congruence). lia. }
    destruct (Forall2_nth _ _ _ _ _ _ Hsig Epj Efv) as (_ & Pc & Pt). destruct (shrink_binding_sig codata pj fvj Pc Pt) as [_ Q2].
    destruct (Hsound fvj (nth_error_In _ _ Efv)) as (b2 & Hb2 & _ & ->).
    destruct (shrink_binding_sig codata (B rho b2) b2 eq_refl eq_refl) as [_ R2]. rewrite Q2, R2. apply ty_declared_shrink. now apply Hdecl.
Qed.

Lemma pre_linear_arn : forall f t, pre_linear (arn f t) = pre_linear t.
Proof.
  intros f. apply (stmt_ind' (fun t => pre_linear (arn f t) = pre_linear t)); intros; try reflexivity; try (simpl; now rewrite ?H, ?H0).
  - rewrite arn_switch, !pre_linear_switch. unfold arn_cls. rewrite forallb_map.
    induction H as [|[[x c] b] r Hb _ IH]; [reflexivity|]. simpl in *. now rewrite Hb, IH.
  - rewrite arn_create. destruct env as [ce|]; [reflexivity|]. cbn [option_map]. rewrite !pre_linear_create, H0. f_equal.
    unfold arn_cls. rewrite forallb_map. induction H as [|[[x c] b] r Hb _ IH]; [reflexivity|]. simpl in *. now rewrite Hb, IH.
Qed.
Lemma critical_clauses_pre_linear : forall cd ve tty se xs st cls st', critical_clauses cd ve tty se xs st = (cls, st') ->
  pre_linear se = true -> forallb (fun c : clause => pre_linear (snd c)) cls = true.
Proof.
  induction xs as [|[xt a] r IH]; intros st cls st' H Hse; simpl in H.
  - inv H. reflexivity.
  - destruct (fresh_env _ st) as [env sta]. destruct (critical_clauses _ _ _ _ r _) as [r' stc] eqn:Hr. inv H.
    cbn [forallb snd pre_linear]. rewrite ax_subst_is_arn, pre_linear_arn, Hse. eapply IH; eauto.
Qed.

Lemma grel_skip : forall (need : cident -> Prop) pi Ga G env, grel p need pi Ga G -> (forall i, In i (ids env) -> ~ In i (ids Ga)) ->
  grel p need pi (env ++ Ga) G.
Proof.
  intros need pi Ga G env Hg Hdis b Hb Hn. destruct (Hg b Hb Hn) as (b' & Hl & Hc & Ht). exists b'. split; [|auto].
  rewrite lookup_b_skip; [exact Hl|]. intros Hin. apply (Hdis _ Hin). eapply lookup_b_in; eauto.
Qed.

(* the expanded side: shrunk in place or lifted - typed either way *)
Lemma expand_typed : forall k, TLn k -> forall lbl (cond : bool) rho se st t_exp st1,
  (if cond then shrink_stmt k (mksenv D codata lbl) (rn_stmt rho se) st
   else lift (shrink_stmt k (mksenv D codata lbl)) (mksenv D codata lbl) (rn_stmt rho se) st) = SOk (t_exp, st1) ->
  ib_stmt m0 se = true -> (m0 <= s_max st)%N ->
  (exists R, R (rn_stmt rho se) st = SOk (t_exp, st1) /\ TLr R se) /\
  (s_max st <= s_max st1)%N /\ exists nd, s_lifted st1 = nd ++ s_lifted st.
Proof.
  intros k IH lbl cond rho se st t_exp st1 H Hib Hm. destruct cond.
  - split; [|eapply shrink_stmt_mono; eauto].
    exists (shrink_stmt k (mksenv D codata lbl)). split; [exact H|]. apply TLs_TLr. apply IH.
  - split; [|eapply lift_mono; eauto].
    exists (lift (shrink_stmt k (mksenv D codata lbl)) (mksenv D codata lbl)). split; [exact H|]. apply lift_typed; auto.
Qed.

(* the expanded side typed in the context of one clause of the eta expansion *)
Lemma expand_inst : forall R se G rho th st t_exp st1 Ga v cv T,
  TLr R se -> inv p G rho th st ->
  check_stmt data codata defs (mkcb v cv (CDecl T) :: G) se = None ->
  ub_stmt (cid_id v :: cids G) se = true -> ib_stmt m0 se = true -> nc_stmt (v :: cvars G) se = true ->
  decl_ok p G -> ty_ok data codata (CDecl T) = true ->
  ~ In (cid_id v) (cids G) -> (cid_id v <= m0)%N ->
  shrink_binding codata (mkcb v cv (CDecl T)) = mkb v Prd (Decl T) ->
  R (rn_stmt rho se) st = SOk (t_exp, st1) -> lifted_in' ds' st1 -> lift_wt p ds' st ->
  grel p (fun x => occurs x se) (fun x => th (rho x)) Ga G -> ginv p Ga G st st1 ->
  forall env var, NoDup (ids env) -> (forall i, In i (idn var :: ids env) -> (s_max st1 < i)%N /\ (m0 < i)%N /\ ~ In i (ids Ga)) ->
  ~ In (idn var) (ids env) ->
  acheck ts ds' (mkb var Prd (Decl T) :: env ++ Ga) (arn (fun y => th (ax_subst_ident [(cid_id v, var)] y)) t_exp) = None /\
  pre_linear t_exp = true /\ lift_wt p ds' st1.
Proof.
  intros R se G rho th st t_exp st1 Ga v cv T HR Hinv Hck Hub Hib Hnc Hdecl Hty Hv Hvm Hsb Hsh Hlin Hlw Hg Hgi env var Hnd Hfresh Hvenv.
  set (tau := fun y : ident => ax_subst_ident [(cid_id v, var)] y).
  set (th' := fun y => th (tau y)).
  assert (Hth_fresh : forall y, (m0 < cid_id y)%N -> th y = y) by (intros y Hy; eapply th_fresh; eauto).
  assert (Htau_other : forall y, cid_id y <> cid_id v -> tau y = y).
  { intros y Hy. unfold tau. cbn [ax_subst_ident]. unfold idn. destruct (N.eqb (cid_id v) (snd y)) eqn:E; [apply N.eqb_eq in E; exfalso; apply Hy; unfold cid_id in *; now rewrite E | reflexivity]. }
  assert (Htau_v : tau v = var).
  { unfold tau. cbn [ax_subst_ident]. unfold idn, cid_id. now rewrite N.eqb_refl. }
  pose proof (inv_push p _ _ _ _ v cv (CDecl T) Hinv Hv Hvm) as Hinv1.
  assert (Hinv' : inv p (mkcb v cv (CDecl T) :: G) rho th' st).
  { constructor.
    - apply (inv_nd _ _ _ _ _ Hinv1).
    - apply (inv_le _ _ _ _ _ Hinv1).
    - apply (inv_st _ _ _ _ _ Hinv1).
    - apply (inv_rho _ _ _ _ _ Hinv1).
    - intros y Hy. unfold th'. rewrite Htau_other; [apply (inv_th _ _ _ _ _ Hinv1); exact Hy|]. intros E. apply Hy. left. now rewrite E.
    - apply (inv_rng _ _ _ _ _ Hinv1).
    - intros x y Hxy. unfold th'. apply (inv_P _ _ _ _ _ Hinv). unfold tau. cbn [ax_subst_ident]. unfold idn. unfold cid_id in Hxy. rewrite Hxy.
      destruct (N.eqb (cid_id v) (snd y)); [reflexivity | exact Hxy]. }
  assert (Hdis : forall i, In i (ids env) -> ~ In i (ids Ga)) by (intros i Hi; apply Hfresh; now right).
  assert (Hvar_ni : ~ In (idn var) (ids (env ++ Ga))).
  { unfold ids. rewrite map_app. intros Hin. apply in_app_or in Hin as [Hin|Hin]; [contradiction|]. apply (Hfresh (idn var)); [now left | exact Hin]. }
  assert (Hg' : grel p (fun y => occurs y se) (fun y => th' (rho y)) (mkb var Prd (Decl T) :: env ++ Ga) (mkcb v cv (CDecl T) :: G)).
  { pose proof (grel_push p (fun y => occurs y se) (fun y => occurs y se) (fun y => th (rho y)) (fun y => th' (rho y)) (env ++ Ga) G v cv (CDecl T) var
                  (grel_skip _ _ _ _ env Hg Hdis) Hvar_ni) as H. rewrite Hsb in H. cbn [bchi bty] in H. apply H.
    - intros b Hb Hn. split; [exact Hn|]. unfold th'. rewrite Htau_other; [reflexivity|].
      intros E. destruct (inv_rng _ _ _ _ _ Hinv b Hb) as [H0|H0]; [apply Hv; now rewrite <- E | rewrite E in H0; lia].
    - unfold th'. rewrite (inv_rho _ _ _ _ _ Hinv v Hv Hvm), Htau_v. rewrite Hth_fresh; [reflexivity | apply (Hfresh (idn var)); now left]. }
  assert (Hgi' : ginv p (mkb var Prd (Decl T) :: env ++ Ga) (mkcb v cv (CDecl T) :: G) st st1).
  { intros i Hi. cbn [ids map bvar] in Hi. fold (ids (env ++ Ga)) in Hi. destruct Hi as [<-|Hi].
    - destruct (Hfresh (idn var) (or_introl eq_refl)) as (F1 & F2 & _). split; [now right | lia].
    - unfold ids in Hi. rewrite map_app in Hi. apply in_app_or in Hi as [Hi|Hi].
      + destruct (Hfresh i (or_intror Hi)) as (F1 & F2 & _). split; [now right | lia].
      + destruct (Hgi i Hi) as [[A|A] Bn]; (split; [|exact Bn]); [left; now right | now right]. }
  exact (HR _ rho th' st t_exp st1 _ Hinv' Hck Hub Hib Hnc (decl_push p _ v cv (CDecl T) Hdecl Hty) Hsh Hg' Hgi' Hlin Hlw).
Qed.

Definition lmax (l : list N) : N := fold_right N.max 0%N l.
Lemma lmax_le : forall l i, In i l -> (i <= lmax l)%N.
Proof. induction l as [|x r IH]; intros i Hi; [contradiction|]. destruct Hi as [<-|Hi]; simpl; [lia | apply IH in Hi; lia]. Qed.

(* the shared part of both critical pairs at a declared type *)
Lemma crit_typed : forall k, TLn k -> forall lbl G rho th st Ga T dT d v cv se vk ck sk (cond : bool) t_exp st1 clauses st2 next st',
  inv p G rho th st -> decl_ok p G -> ty_ok data codata (CDecl T) = true ->
  AxCheck.find_type ts T = Some dT -> dT = shrink_declaration codata d -> In d (data ++ codata) ->
  (* expanded side *)
  check_stmt data codata defs (mkcb v cv (CDecl T) :: G) se = None ->
  ub_stmt (cid_id v :: cids G) se = true -> ib_stmt m0 se = true -> nc_stmt (v :: cvars G) se = true ->
  ~ In (cid_id v) (cids G) -> (cid_id v <= m0)%N ->
  shrink_binding codata (mkcb v cv (CDecl T)) = mkb v Prd (Decl T) ->
  (* kept side *)
  check_stmt data codata defs (mkcb vk ck (CDecl T) :: G) sk = None ->
  ub_stmt (cid_id vk :: cids G) sk = true -> ib_stmt m0 sk = true -> nc_stmt (vk :: cvars G) sk = true ->
  ~ In (cid_id vk) (cids G) -> (cid_id vk <= m0)%N ->
  shrink_binding codata (mkcb vk ck (CDecl T)) = mkb vk Cns (Decl T) ->
  (if cond then shrink_stmt k (mksenv D codata lbl) (rn_stmt rho se) st
   else lift (shrink_stmt k (mksenv D codata lbl)) (mksenv D codata lbl) (rn_stmt rho se) st) = SOk (t_exp, st1) ->
  critical_clauses codata v (Decl T) t_exp (xtor_list d) st1 = (clauses, st2) ->
  shrink_stmt k (mksenv D codata lbl) (rn_stmt rho sk) st2 = SOk (next, st') ->
  grel p (fun y => occurs y se \/ occurs y sk) (fun y => th (rho y)) Ga G -> ginv p Ga G st st' ->
  lifted_in' ds' st' -> lift_wt p ds' st ->
  acheck ts ds' Ga (arn th (Create vk (Decl T) None clauses next)) = None /\
  pre_linear (Create vk (Decl T) None clauses next) = true /\ lift_wt p ds' st'.
Proof.
  intros k IH lbl G rho th st Ga T dT d v cv se vk ck sk cond t_exp st1 clauses st2 next st'
         Hinv Hdecl Hty HdT EdT Hdin Hcse Hubse Hibse Hncse Hv Hvm Hsbv Hcsk Hubsk Hibsk Hncsk Hvk Hvkm Hsbk E1 E2 E3 Hg Hgi Hlin Hlw.
  pose proof (inv_st _ _ _ _ _ Hinv) as Hst.
  destruct (expand_typed k IH lbl cond rho se st t_exp st1 E1 Hibse Hst) as ((R & HR & HTL) & Hm1 & nd1 & Hl1).
  destruct (critical_clauses_frame _ _ _ _ _ _ _ _ E2) as (Hm2 & Hl2 & _).
  assert (Hinv2 : inv p G rho th st2) by (eapply inv_st_mono; [exact Hinv | lia]).
  destruct (shrink_stmt_mono _ _ _ _ _ _ E3) as [Hm3 (nd3 & Hl3)].
  assert (Hlin2 : lifted_in' ds' st2) by (eapply lifted_in'_mono; eauto).
  assert (Hlin1 : lifted_in' ds' st1) by (intros d0 Hd0; apply Hlin2; rewrite Hl2; exact Hd0).
  assert (Hg1 : grel p (fun y => occurs y se) (fun y => th (rho y)) Ga G) by (eapply grel_weaken; [exact Hg | intros y Hy; now left]).
  assert (Hgi1 : ginv p Ga G st st1) by (eapply ginv_sub; [exact Hgi | lia | lia]).
  pose proof (expand_inst R se G rho th st t_exp st1 Ga v cv T HTL Hinv Hcse Hubse Hibse Hncse Hdecl Hty Hv Hvm Hsbv HR Hlin1 Hlw Hg1 Hgi1) as Hinst.
  (* of the typing of the expanded side only its by-products are wanted here (pre-linearity, the lifted definitions):
     instantiate it with no clause parameters and any variable whose id is above everything in sight *)
  destruct (Hinst [] ("v"%string, N.succ (N.max (s_max st') (lmax (ids Ga)))) ltac:(constructor)) as (_ & Tpre & Tlw).
  { intros i [<-|[]]. cbn [idn snd]. split; [lia|]. split; [lia|]. intros Hin. apply lmax_le in Hin. lia. }
  { intros []. }
  assert (Hgi3 : ginv p Ga G st2 st') by (eapply ginv_sub; [exact Hgi | lia | lia]).
  assert (Hlw2 : lift_wt p ds' st2) by (intros d0 Hd0; apply Tlw; rewrite <- Hl2; exact Hd0).
  destruct (push_old p _ (fun y => occurs y sk) _ _ _ _ _ _ vk ck (CDecl T) Hinv2 Hg Hgi3 Hvk Hvkm ltac:(intros y Hy; now right)) as (Hfk & Hgk & Hgik).
  destruct (IH sk lbl _ rho th st2 next st' _ (inv_push p _ _ _ _ vk ck (CDecl T) Hinv2 Hvk Hvkm) Hcsk Hubsk Hibsk Hncsk (decl_push p _ vk ck (CDecl T) Hdecl Hty) E3 Hgk Hgik Hlin Hlw2) as (U1 & U2 & U3).
  split; [|split; [rewrite pre_linear_create, U2, (critical_clauses_pre_linear _ _ _ _ _ _ _ _ E2 Tpre); reflexivity | exact U3]].
  rewrite arn_create. cbn [option_map].
  eapply ck_create; [exact HdT | | exact Hfk | rewrite Hsbk in U1; exact U1].
  subst dT. cbn [shrink_declaration txtors]. rewrite <- sx_xtor_list.
  eapply (crit_cls_ok th Ga T _ v t_exp HdT); eauto.
  - eapply th_fresh; eauto.
  - lia.
  - apply xtors_found; auto.
  - intros i Hi. eapply ginv_fresh; [exact Hgi | lia].
  - intros env var Hnd Hr Hve. apply (Hinst env var Hnd); [|exact Hve].
    intros i Hi. apply Hr in Hi. split; [lia|]. split; [lia|]. eapply ginv_fresh; [exact Hgi | lia].
Qed.

Lemma tl_crit_decl : forall k, TLn k -> forall c1 a sp t1 T c2 x sc t2, TLs (S k) (FsCut (FsMu c1 a sp t1) (CDecl T) (FsMu c2 x sc t2)).
Proof.
  intros k IH c1 a sp t1 T c2 x sc t2. tstart.
  cbn [rn_stmt rn_term shrink_step shrink_cut shrink_critical_pairs] in Hsh. unfold xtors_of in Hsh. cbn [e_codata e_data] in Hsh.
  destruct (cut_terms p _ _ _ _ Hck Hub Hib Hnc) as (Hty & (Hcp & Hub1 & Hib1 & Hn1) & (Hcc & Hub2 & Hib2 & Hn2)).
  destruct (mu_parts p _ _ _ _ _ _ _ Hcp Hub1 Hib1 Hn1) as (Hcsp & Hua & Hia & Hubp & Hibp & Hncp').
  destruct (mu_parts p _ _ _ _ _ _ _ Hcc Hub2 Hib2 Hn2) as (Hcsc & Hux & Hix & Hubc & Hibc & Hncc').
  pose proof (nc_cut_mu_l _ _ _ _ _ _ _ Hnc) as Hncp. pose proof (nc_cut_mu_r _ _ _ _ _ _ _ Hnc) as Hncc.
  pose proof Hty as Hty'. unfold ty_ok in Hty.
  destruct (find_decl codata T) as [d|] eqn:Hdc.
  - assert (Hco : is_codata codata (CDecl T) = true) by (eapply codata_is_codata; eauto).
    rewrite Hco in Hsh. unfold lookup_type_declaration in Hsh. unfold find_decl in Hdc. rewrite Hdc in Hsh. cbn [sbind] in Hsh.
    fold (xtor_list d) in Hsh. fold (find_decl codata T) in Hdc. unfold shrink_identifier in Hsh. cbv beta iota zeta in Hsh.
    match type of Hsh with context [if ?c then _ else _] => set (cond := c) in Hsh end.
    destruct (if cond then _ else _) as [[t_exp st1]|] eqn:E1; [|discriminate Hsh]. cbn [sbind] in Hsh.
    destruct (critical_clauses codata a (shrink_ty (CDecl T)) t_exp (xtor_list d) st1) as [clauses st2] eqn:E2.
    destruct (shrink_stmt k _ (rn_stmt rho sc) st2) as [[next st3]|] eqn:E3; [|discriminate Hsh]. cbn [sbind] in Hsh. inv Hsh.
    destruct (decl_at p Hdisj Hcont CCns T d Hdc) as (Hft & _ & Hdin & Hsb).
    exact (crit_typed k IH lbl G rho th st Ga T _ d a CCns sp x CPrd sc cond t_exp st1 clauses st2 next st'
             Hinv Hdecl Hty' Hft eq_refl Hdin Hcsp Hubp Hibp Hncp Hua Hia (Hsb a CCns)
             Hcsc Hubc Hibc Hncc Hux Hix (Hsb x CPrd) E1 E2 E3 Hg Hgi Hlin Hlw).
  - destruct (find_decl data T) as [d|] eqn:Hdd; [|discriminate Hty].
    assert (Hco : is_codata codata (CDecl T) = false) by (eapply data_not_codata; eauto).
    rewrite Hco in Hsh. rewrite (lookup_decl_data p _ _ Hdd) in Hsh. cbn [sbind] in Hsh.
    fold (xtor_list d) in Hsh. unfold shrink_identifier in Hsh. cbv beta iota zeta in Hsh.
    match type of Hsh with context [if ?c then _ else _] => set (cond := c) in Hsh end.
    destruct (if cond then _ else _) as [[t_exp st1]|] eqn:E1; [|discriminate Hsh]. cbn [sbind] in Hsh.
    destruct (critical_clauses codata x (shrink_ty (CDecl T)) t_exp (xtor_list d) st1) as [clauses st2] eqn:E2.
    destruct (shrink_stmt k _ (rn_stmt rho sp) st2) as [[next st3]|] eqn:E3; [|discriminate Hsh]. cbn [sbind] in Hsh. inv Hsh.
    destruct (decl_at p Hdisj Hcont CPrd T d Hdd) as (Hft & _ & Hdin & Hsb).
    refine (crit_typed k IH lbl G rho th st Ga T _ d x CPrd sc a CCns sp cond t_exp st1 clauses st2 next st'
              Hinv Hdecl Hty' Hft eq_refl Hdin Hcsc Hubc Hibc Hncc Hux Hix (Hsb x CPrd)
              Hcsp Hubp Hibp Hncp Hua Hia (Hsb a CCns) E1 E2 E3 _ Hgi Hlin Hlw).
    eapply grel_weaken; [exact Hg|]. intros y [Hy|Hy]; occ.
Qed.

Theorem TL_all : forall k, TLn k.
Proof.
  induction k as [|k IH]; intros s.
  - unfold TLs. intros lbl G rho th st t st' Ga _ _ _ _ _ _ Hsh. discriminate Hsh.
  - destruct s as [pr ty kk|so a b t e|nl a nx|f args|v].
    + destruct pr as [c1 v1 t1|z|a o b|c1 v1 s1 t1|c1 x1 args1 t1|c1 cls1 t1];
      destruct kk as [c2 v2 t2|z2|a2 o2 b2|c2 v2 s2 t2|c2 x2 args2 t2|c2 cls2 t2];
      (* on the 18 pairs of term forms that [shrink_cut] has no arm for, shrinking fails and the statement is void *)
      try (unfold TLs; intros lbl G rho th st t st' Ga Hinv Hck Hub Hib Hnc Hdecl Hsh;
           rewrite shrink_stmt_S in Hsh; cbn [rn_stmt rn_term shrink_step shrink_cut] in Hsh; discriminate Hsh).
      * (* XVar, XVar *) apply tl_unknown; auto.
      * (* XVar, Mu *) eapply tl_rename with (s := CCns); try eassumption; split; reflexivity.
      * (* XVar, Xtor *) eapply tl_invoke with (s := CCns); try eassumption; split; reflexivity.
      * (* XVar, XCase *) eapply tl_switch with (s := CPrd); try eassumption; split; reflexivity.
      * (* Lit, XVar *) apply tl_lit_var; auto.
      * (* Lit, Mu *) apply tl_lit_mu; auto.
      * (* Op, XVar *) apply tl_op_var; auto.
      * (* Op, Mu *) apply tl_op_mu; auto.
      * (* Mu, XVar *) eapply tl_rename with (s := CPrd); try eassumption; split; reflexivity.
      * (* Mu, Mu *) destruct ty; [apply tl_crit_i64; auto | apply tl_crit_decl; auto].
      * (* Mu, Xtor *) eapply tl_let with (s := CCns); try eassumption; split; reflexivity.
      * (* Mu, XCase *) eapply tl_create with (s := CPrd); try eassumption; split; reflexivity.
      * (* Xtor, XVar *) eapply tl_invoke with (s := CPrd); try eassumption; split; reflexivity.
      * (* Xtor, Mu *) eapply tl_let with (s := CPrd); try eassumption; split; reflexivity.
      * (* Xtor, XCase *) eapply tl_known with (s := CPrd); try eassumption; split; reflexivity.
      * (* XCase, XVar *) eapply tl_switch with (s := CCns); try eassumption; split; reflexivity.
      * (* XCase, Mu *) eapply tl_create with (s := CCns); try eassumption; split; reflexivity.
      * (* XCase, Xtor *) eapply tl_known with (s := CCns); try eassumption; split; reflexivity.
    + apply tl_ifc; auto.
    + apply tl_print; auto.
    + apply tl_call; auto.
    + apply tl_exit; auto.
Qed.
End TyEta.
