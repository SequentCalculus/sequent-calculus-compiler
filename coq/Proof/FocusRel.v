(* C03, semantic preservation: the simulation relation between the Core machine running
   an (unfocused) program [ps] and the same machine running the embedding of its focused form.

   Values ([V]): integers and constructor/destructor values are related component-wise; a closure
   (cocase, case, mu~, by-name thunk) over source code [s] in environment [e] is related to the
   closure over [focus s] (any counter >= M0) in a related environment.  The two machine-internal
   values have no homomorphic image, because focusing turns the machine continuation they hold into
   code:
     KRet m    (the continuation waiting for the value of a by-value mu-argument)  ~  KMuT x sk e'
     PDelay m  (the by-name delayed rest of a statement)                           ~  PThunk a sk e'
   where [sk] is what the meta-level continuation [k] of `bind` returned for the fresh name, and
   [k] "is" the machine continuation [m] ([mk_rel]: frame by frame, [k] is one of the named
   closures of Proof/FocusKont.v).

   Environments ([env_rel]): the target environment is the source environment with the fresh
   bindings (id > M0) interleaved.  M0 bounds every identifier of the source program; every
   counter handed to focus/bind is >= M0.

   [mk_rel c m k e']: [k] may be called with any counter >= c, and the relation survives pushing
   bindings with id > c onto e'. *)
From Coq Require Import List ZArith NArith String Bool Lia.
From SCC Require Import Base.Sexp Lang.CoreSyn Sem.AxSem Sem.CoreSem Model.Backend Model.Uniquify Model.Focus
     Model.FocusCheck Proof.FocusKont.
Import ListNotations.
Open Scope list_scope.
Open Scope N_scope.

Definition bkind (v : bval) : cchi := match v with BP _ => CPrd | BK _ => CCns end.

Section Rel.
Variable ps : cprog.     (* the source program (for is_codata) *)
Variable M0 : N.         (* bound of the source identifiers *)

Inductive V : bval -> bval -> Prop :=
| V_int : forall z, V (BP (PInt z)) (BP (PInt z))
| V_ctor : forall tag args args', Vs args args' -> V (BP (PCtor tag args)) (BP (PCtor tag args'))
| V_cocase : forall cls e cls' e' mc m2,
    maprs focus_clause cls mc = Ok (cls', m2) -> M0 <= mc -> forallb (ids_le_clause M0) cls = true ->
    env_rel e e' -> V (BP (PCocase cls e)) (BP (PCocase (map fs2c_clause cls') e'))
| V_thunk : forall a s e s' e' mc m2,
    focus_stmt s mc = Ok (s', m2) -> M0 <= mc -> ids_le_stmt M0 s = true -> env_rel e e' ->
    V (BP (PThunk a s e)) (BP (PThunk a (fs2c_stmt s') e'))
| V_delay : forall m k b c mc sk m2 e',
    k b mc = Ok (sk, m2) -> cbchi b = CCns -> c < cid_id (cbvar b) <= mc -> M0 <= c -> mk_rel c m k e' ->
    V (BP (PDelay m)) (BP (PThunk (cbvar b) (fs2c_stmt sk) e'))
| V_mut : forall x s e s' e' mc m2,
    focus_stmt s mc = Ok (s', m2) -> M0 <= mc -> ids_le_stmt M0 s = true -> env_rel e e' ->
    V (BK (KMuT x s e)) (BK (KMuT x (fs2c_stmt s') e'))
| V_case : forall cls e cls' e' mc m2,
    maprs focus_clause cls mc = Ok (cls', m2) -> M0 <= mc -> forallb (ids_le_clause M0) cls = true ->
    env_rel e e' -> V (BK (KCase cls e)) (BK (KCase (map fs2c_clause cls') e'))
| V_dtor : forall tag args args', Vs args args' -> V (BK (KDtor tag args)) (BK (KDtor tag args'))
| V_ret : forall m k b c mc sk m2 e',
    k b mc = Ok (sk, m2) -> cbchi b = CPrd -> c < cid_id (cbvar b) <= mc -> M0 <= c -> mk_rel c m k e' ->
    V (BK (KRet m)) (BK (KMuT (cbvar b) (fs2c_stmt sk) e'))
with Vs : list bval -> list bval -> Prop :=
| Vs_nil : Vs [] []
| Vs_cons : forall v v' l l', V v v' -> Vs l l' -> Vs (v :: l) (v' :: l')
with env_rel : cenv -> cenv -> Prop :=
| ER_nil : env_rel [] []
| ER_both : forall x v v' e e', V v v' -> env_rel e e' -> env_rel ((x, v) :: e) ((x, v') :: e')
| ER_fresh : forall y w e e', M0 < cid_id y -> env_rel e e' -> env_rel e ((y, w) :: e')
with mk_rel : N -> mk -> kont -> cenv -> Prop :=
| MR_opL : forall c o t e m k e',
    env_rel e e' -> ids_le_term M0 t = true -> mk_rel c m k e' ->
    mk_rel c (MOpL o t e m) (opL_k t o k) e'
| MR_opR : forall c o x m k b1 e',
    clookup e' (cbvar b1) = Some (BP (PInt x)) -> cid_id (cbvar b1) <= c -> mk_rel c m k e' ->
    mk_rel c (MOpR o x m) (opR_k b1 o k) e'
| MR_cutopL : forall c o t e q e2 ty e',
    env_rel e e' -> env_rel e2 e' -> ids_le_term M0 t = true -> ids_le_term M0 q = true ->
    mk_rel c (MOpL o t e (MCutK q e2)) (cutopL_k t o ty q) e'
| MR_cutopR : forall c o x q e2 ty b1 e',
    clookup e' (cbvar b1) = Some (BP (PInt x)) -> cid_id (cbvar b1) <= c ->
    env_rel e2 e' -> ids_le_term M0 q = true ->
    mk_rel c (MOpR o x (MCutK q e2)) (cutopR_k b1 o ty q) e'
| MR_if1 : forall c so b t el e e',
    env_rel e e' -> match b with Some b0 => ids_le_term M0 b0 | None => true end = true ->
    ids_le_stmt M0 t = true -> ids_le_stmt M0 el = true ->
    mk_rel c (MIf1 so b t el e) (if1_k so b t el) e'
| MR_if2 : forall c so x t el e b1 e',
    clookup e' (cbvar b1) = Some (BP (PInt x)) -> cid_id (cbvar b1) <= c ->
    env_rel e e' -> ids_le_stmt M0 t = true -> ids_le_stmt M0 el = true ->
    mk_rel c (MIf2 so x t el e) (if2_k so b1 t el) e'
| MR_print : forall c nl next e e',
    env_rel e e' -> ids_le_stmt M0 next = true -> mk_rel c (MPrint nl next e) (print_k nl next) e'
| MR_exit : forall c e', mk_rel c MExit exit_k e'
| MR_args : forall c done rest e f kv e',
    env_rel e e' -> forallb (ids_le_arg M0) rest = true -> kv_rel c done f kv e' ->
    mk_rel c (MArgs done rest e f) (many_k rest kv) e'
with kv_rel : N -> list bval -> fin -> kontv -> cenv -> Prop :=
| KV_cons : forall c v v' done f b kv e',
    clookup e' (cbvar b) = Some v' -> V v v' -> bkind v = cbchi b -> cid_id (cbvar b) <= c ->
    kv_rel c done f kv e' -> kv_rel c (v :: done) f (cons_kv b kv) e'
| KV_xtorP : forall c tag m c' ty k e', mk_rel c m k e' -> kv_rel c [] (FinXtorP tag m) (xtorP_kv c' tag ty k) e'
| KV_xtorK : forall c tag m c' ty k e', mk_rel c m k e' -> kv_rel c [] (FinXtorK tag m) (xtorK_kv c' tag ty k) e'
| KV_cutP : forall c tag q e pc ty e',
    env_rel e e' -> ids_le_term M0 q = true ->
    kv_rel c [] (FinXtorP tag (MCutK q e)) (cutP_kv pc tag ty q) e'
| KV_cutK : forall c tag p e qc ty e',
    env_rel e e' -> ids_le_term M0 p = true ->
    kv_rel c [] (FinXtorK tag (MCutP (is_codata ps ty) p e)) (cutK_kv qc tag ty p) e'
| KV_call : forall c f e', kv_rel c [] (FinCall f) (call_kv f) e'.

Scheme mk_rel_mind := Minimality for mk_rel Sort Prop
  with kv_rel_mind := Minimality for kv_rel Sort Prop.

Inductive crel : config -> config -> Prop :=
| CR_run : forall s e s' e' mc m2,
    focus_stmt s mc = Ok (s', m2) -> M0 <= mc -> ids_le_stmt M0 s = true -> env_rel e e' ->
    crel (Run s e) (Run (fs2c_stmt s') e')
| CR_arg : forall a e m k c mc s' m2 e',
    bind_arg a k mc = Ok (s', m2) -> M0 <= c -> c <= mc -> ids_le_arg M0 a = true -> env_rel e e' ->
    mk_rel c m k e' -> crel (Arg a e m) (Run (fs2c_stmt s') e')
| CR_app : forall m v k b c mc sk m2 e' v',
    k b mc = Ok (sk, m2) -> M0 <= c -> c <= mc -> cid_id (cbvar b) <= mc ->
    clookup e' (cbvar b) = Some v' -> V v v' -> bkind v = cbchi b -> mk_rel c m k e' ->
    crel (App m v) (Run (fs2c_stmt sk) e')
| CR_cutK : forall q e q' e' mc m2 pv pv',
    focus_term CCns q mc = Ok (q', m2) -> M0 <= mc -> ids_le_term M0 q = true -> env_rel e e' ->
    V (BP pv) (BP pv') -> crel (App (MCutK q e) (BP pv)) (App (MCutK (fs2c_term q') e') (BP pv'))
| CR_cutP : forall cd p e p' e' mc m2 kv kv',
    focus_term CPrd p mc = Ok (p', m2) -> M0 <= mc -> ids_le_term M0 p = true -> env_rel e e' ->
    V (BK kv) (BK kv') -> crel (App (MCutP cd p e) (BK kv)) (App (MCutP cd (fs2c_term p') e') (BK kv')).

Lemma cident_eqb_id_ne : forall x y : cident, cid_id x <> cid_id y -> cident_eqb x y = false.
Proof.
  intros [a i] [b j] H. unfold cident_eqb; simpl in *. apply andb_false_iff. right. apply N.eqb_neq. exact H.
Qed.

Lemma V_kind : forall v v', V v v' -> bkind v' = bkind v.
Proof. intros v v' H; inversion H; reflexivity. Qed.

Lemma env_lookup : forall e e', env_rel e e' -> forall x, cid_id x <= M0 ->
  match clookup e x, clookup e' x with
  | Some v, Some v' => V v v'
  | None, None => True
  | _, _ => False
  end.
Proof.
  induction 1 as [|y v v' e e' HV HE IH|y w e e' Hy HE IH]; intros x Hx; simpl.
  - exact I.
  - destruct (cident_eqb y x); [exact HV | apply IH; exact Hx].
  - rewrite cident_eqb_id_ne by lia. apply IH; exact Hx.
Qed.

Lemma env_lookup_some : forall e e' x v, env_rel e e' -> cid_id x <= M0 -> clookup e x = Some v ->
  exists v', clookup e' x = Some v' /\ V v v'.
Proof.
  intros e e' x v HE Hx L. pose proof (env_lookup e e' HE x Hx) as Q. rewrite L in Q.
  destruct (clookup e' x) as [v'|]; [eauto | contradiction].
Qed.

Lemma mk_rel_mono_gen :
  (forall c m k e', mk_rel c m k e' -> forall c2, c <= c2 -> mk_rel c2 m k e') /\
  (forall c d f kv e', kv_rel c d f kv e' -> forall c2, c <= c2 -> kv_rel c2 d f kv e').
Proof.
  split.
  - apply (mk_rel_mind (fun c m k e' => forall c2, c <= c2 -> mk_rel c2 m k e')
                       (fun c d f kv e' => forall c2, c <= c2 -> kv_rel c2 d f kv e'));
      intros; try (econstructor; eauto; lia).
  - apply (kv_rel_mind (fun c m k e' => forall c2, c <= c2 -> mk_rel c2 m k e')
                       (fun c d f kv e' => forall c2, c <= c2 -> kv_rel c2 d f kv e'));
      intros; try (econstructor; eauto; lia).
Qed.
Lemma mk_rel_mono : forall c c2 m k e', mk_rel c m k e' -> c <= c2 -> mk_rel c2 m k e'.
Proof. intros. eapply (proj1 mk_rel_mono_gen); eauto. Qed.
Lemma kv_rel_mono : forall c c2 d f kv e', kv_rel c d f kv e' -> c <= c2 -> kv_rel c2 d f kv e'.
Proof. intros. eapply (proj2 mk_rel_mono_gen); eauto. Qed.

Lemma clookup_push_ne : forall (e' : cenv) y w x, cid_id y <> cid_id x -> clookup ((y, w) :: e') x = clookup e' x.
Proof. intros. simpl. rewrite cident_eqb_id_ne by assumption. reflexivity. Qed.

Lemma mk_rel_push_gen : forall y w,
  (forall c m k e', mk_rel c m k e' -> M0 <= c -> c < cid_id y -> mk_rel c m k ((y, w) :: e')) /\
  (forall c d f kv e', kv_rel c d f kv e' -> M0 <= c -> c < cid_id y -> kv_rel c d f kv ((y, w) :: e')).
Proof.
  intros y w.
  pose (P := fun c m k e' => M0 <= c -> c < cid_id y -> mk_rel c m k ((y, w) :: e')).
  pose (Q := fun c d f kv e' => M0 <= c -> c < cid_id y -> kv_rel c d f kv ((y, w) :: e')).
  assert (EF : forall e e' c, env_rel e e' -> M0 <= c -> c < cid_id y -> env_rel e ((y, w) :: e')).
  { intros. apply ER_fresh; [lia | assumption]. }
  split.
  - apply (mk_rel_mind P Q); unfold P, Q; intros;
      try (econstructor; eauto; try (rewrite clookup_push_ne by lia; assumption)).
  - apply (kv_rel_mind P Q); unfold P, Q; intros;
      try (econstructor; eauto; try (rewrite clookup_push_ne by lia; assumption)).
Qed.
Lemma mk_rel_push : forall c m k e' y w,
  mk_rel c m k e' -> M0 <= c -> c < cid_id y -> mk_rel c m k ((y, w) :: e').
Proof. intros. eapply (proj1 (mk_rel_push_gen y w)); eauto. Qed.

Lemma Vs_length : forall l l', Vs l l' -> List.length l = List.length l'.
Proof. induction 1; simpl; congruence. Qed.
Lemma Vs_app : forall a a' b b', Vs a a' -> Vs b b' -> Vs (a ++ b) (a' ++ b').
Proof. induction 1; simpl; intros; auto. constructor; auto. Qed.

(* positional binding of related value lists *)
Lemma cbind_rel : forall xs vs vs' e e' e1,
  Vs vs vs' -> env_rel e e' -> cbind xs vs e = Some e1 ->
  exists e1', cbind xs vs' e' = Some e1' /\ env_rel e1 e1'.
Proof.
  induction xs as [|x xs IH]; intros vs vs' e e' e1 HV HE HB.
  - inversion HV; subst; simpl in *; try discriminate. inversion HB; subst. eauto.
  - inversion HV as [|v v' l l' Hv Hl]; subst; simpl in HB; try discriminate.
    destruct (cbind xs l e) as [e2|] eqn:E2; [|discriminate]. inversion HB; subst.
    destruct (IH _ _ _ _ _ Hl HE E2) as (e2' & E2' & R2). simpl. rewrite E2'.
    eexists; split; [reflexivity|]. apply ER_both; assumption.
Qed.

End Rel.
