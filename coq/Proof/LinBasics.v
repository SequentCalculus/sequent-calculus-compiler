(* Basic facts used by the C05 proofs: id sets as lists, decidable equalities, lookup by id,
   an induction principle for statements (clauses are nested lists). *)
From Coq Require Import String List ZArith NArith Bool Lia Permutation.
From SCC Require Import Base.Sexp Lang.AxSyn Model.Linearize Model.LinCheck.
Import ListNotations.
Open Scope list_scope.
Open Scope N_scope.

Ltac btrue :=
  repeat match goal with
         | H : _ && _ = true |- _ => apply andb_true_iff in H; destruct H
         | H : negb _ = true |- _ => apply negb_true_iff in H
         | |- _ && _ = true => apply andb_true_iff; split
         end.

Lemma mem_In : forall x l, mem x l = true <-> In x l.
Proof.
  unfold mem; intros x l; rewrite existsb_exists; split.
  - intros [y [Hy He]]. apply N.eqb_eq in He. subst; auto.
  - intros H. exists x. split; auto. apply N.eqb_refl.
Qed.
Lemma mem_false : forall x l, mem x l = false <-> ~ In x l.
Proof.
  intros x l. rewrite <- mem_In. destruct (mem x l); split; intros H; try congruence.
Qed.
Lemma add_In : forall x y l, In x (add y l) <-> x = y \/ In x l.
Proof.
  intros x y l; unfold add. destruct (mem y l) eqn:E.
  - apply mem_In in E. split; auto. intros [->|]; auto.
  - simpl. split; intros [H|H]; auto.
Qed.
Lemma union_In : forall x a b, In x (union a b) <-> In x a \/ In x b.
Proof.
  intros x a b; unfold union; induction a as [|y a IH]; simpl.
  - tauto.
  - rewrite add_In, IH. intuition congruence.
Qed.
Lemma remove_In : forall x y l, In x (remove y l) <-> In x l /\ x <> y.
Proof.
  intros x y l; unfold remove. rewrite filter_In.
  rewrite negb_true_iff, N.eqb_neq. tauto.
Qed.
Lemma remove_all_In : forall x ys l, In x (remove_all ys l) <-> In x l /\ ~ In x ys.
Proof.
  intros x ys l; induction ys as [|y ys IH]; simpl.
  - tauto.
  - rewrite remove_In, IH. intuition.
Qed.

Lemma nodupb_NoDup : forall l, nodupb l = true <-> NoDup l.
Proof.
  induction l as [|x l IH]; simpl.
  - split; auto. constructor.
  - rewrite andb_true_iff, negb_true_iff, mem_false, IH. split.
    + intros [H1 H2]; constructor; auto.
    + intros H; inversion H; auto.
Qed.

Lemma ident_eqb_eq : forall a b, ident_eqb a b = true <-> a = b.
Proof.
  intros [s1 n1] [s2 n2]; unfold ident_eqb; simpl.
  rewrite andb_true_iff, String.eqb_eq, N.eqb_eq. split.
  - intros [-> ->]; auto.
  - intros H; inversion H; auto.
Qed.
Lemma ident_eqb_refl : forall a, ident_eqb a a = true.
Proof. intros; apply ident_eqb_eq; auto. Qed.
Lemma chi_eqb_eq : forall a b, chi_eqb a b = true <-> a = b.
Proof. intros [] []; simpl; split; intros; congruence. Qed.
Lemma chi_eqb_refl : forall a, chi_eqb a a = true.
Proof. intros; apply chi_eqb_eq; auto. Qed.
Lemma ty_eqb_eq : forall a b, ty_eqb a b = true <-> a = b.
Proof.
  intros [|x] [|y]; simpl; try (split; intros; congruence).
  rewrite ident_eqb_eq. split; intros; congruence.
Qed.
Lemma ty_eqb_refl : forall a, ty_eqb a a = true.
Proof. intros; apply ty_eqb_eq; auto. Qed.
Lemma b_eqb_eq : forall a b, b_eqb a b = true <-> a = b.
Proof.
  intros [v1 c1 t1] [v2 c2 t2]; unfold b_eqb; simpl.
  rewrite !andb_true_iff, ident_eqb_eq, chi_eqb_eq, ty_eqb_eq. split.
  - intros [[-> ->] ->]; auto.
  - intros H; inversion H; auto.
Qed.
Lemma ctx_eqb_eq : forall a b, ctx_eqb a b = true <-> a = b.
Proof.
  induction a as [|x a IH]; intros [|y b]; simpl; try (split; intros; congruence).
  rewrite andb_true_iff, b_eqb_eq, IH. split.
  - intros [-> ->]; auto.
  - intros H; inversion H; auto.
Qed.

Lemma ids_app : forall a b, ids (a ++ b) = ids a ++ ids b.
Proof. intros; unfold ids; apply map_app. Qed.
Lemma vars_app : forall a b, vars (a ++ b) = vars a ++ vars b.
Proof. intros; unfold vars; apply map_app. Qed.
Lemma ids_length : forall c, length (ids c) = length c.
Proof. intros; unfold ids; apply map_length. Qed.
Lemma vars_length : forall c, length (vars c) = length c.
Proof. intros; unfold vars; apply map_length. Qed.
Lemma ids_vars : forall c, map idn (vars c) = ids c.
Proof. intros; unfold ids, vars; rewrite map_map; auto. Qed.
Lemma In_ids : forall c b, In b c -> In (idn (bvar b)) (ids c).
Proof. intros; unfold ids; apply in_map_iff; eauto. Qed.
Lemma In_ids_ex : forall c x, In x (ids c) -> exists b, In b c /\ idn (bvar b) = x.
Proof. intros c x H; unfold ids in H; apply in_map_iff in H. destruct H as [b [H1 H2]]; eauto. Qed.

Lemma lookup_b_Some : forall c x b, lookup_b c x = Some b -> In b c /\ idn (bvar b) = x.
Proof.
  unfold lookup_b; intros c x b H. apply find_some in H. destruct H as [H1 H2].
  apply N.eqb_eq in H2; auto.
Qed.
Lemma lookup_b_None : forall c x, lookup_b c x = None <-> ~ In x (ids c).
Proof.
  unfold lookup_b; intros c x; split.
  - intros H Hin. apply In_ids_ex in Hin. destruct Hin as [b [H1 H2]].
    eapply find_none in H; eauto. simpl in H. apply N.eqb_neq in H; auto.
  - intros H. destruct (find _ c) eqn:E; auto.
    apply find_some in E. destruct E as [E1 E2]. apply N.eqb_eq in E2.
    exfalso; apply H; subst; apply In_ids; auto.
Qed.
Lemma lookup_b_In : forall c b, NoDup (ids c) -> In b c -> lookup_b c (idn (bvar b)) = Some b.
Proof.
  induction c as [|y c IH]; intros b Hnd Hin; simpl in *; [tauto|].
  inversion Hnd as [|? ? Hn Hnd']; subst.
  destruct Hin as [->|Hin].
  - rewrite N.eqb_refl; auto.
  - destruct (N.eqb (idn (bvar y)) (idn (bvar b))) eqn:E.
    + apply N.eqb_eq in E. exfalso; apply Hn. rewrite E. apply In_ids; auto.
    + apply IH; auto.
Qed.

Lemma has_In_ids : forall c x k t, has c x k t = true -> In (idn x) (ids c).
Proof.
  unfold has; intros c x k t H. destruct (lookup_b c (idn x)) as [b|] eqn:E; try discriminate.
  apply lookup_b_Some in E. destruct E as [E1 E2]. rewrite <- E2. apply In_ids; auto.
Qed.
Lemma has_b_In : forall c b, NoDup (ids c) -> In b c -> has_b c b = true.
Proof.
  intros c b H Hin. unfold has_b, has. rewrite lookup_b_In; auto.
  rewrite chi_eqb_refl, ty_eqb_refl; auto.
Qed.
Lemma has_b_In_ids : forall c b, has_b c b = true -> In (idn (bvar b)) (ids c).
Proof. unfold has_b; intros; eapply has_In_ids; eauto. Qed.
Lemma has_ext_In_ids : forall c x, has_ext c x = true -> In (idn x) (ids c).
Proof. unfold has_ext; intros; eapply has_In_ids; eauto. Qed.
Lemma has_b_all_In_ids : forall c args x, forallb (has_b c) args = true -> In x (ids args) -> In x (ids c).
Proof.
  intros c args x H Hx. apply In_ids_ex in Hx. destruct Hx as [b [B1 <-]].
  apply has_b_In_ids. rewrite forallb_forall in H. auto.
Qed.

Lemma lookup_b_app : forall a b x,
  lookup_b (a ++ b) x = match lookup_b a x with Some v => Some v | None => lookup_b b x end.
Proof.
  induction a as [|y a IH]; intros; simpl; auto.
  destruct (N.eqb (idn (bvar y)) x); auto.
Qed.
Lemma lookup_b_cons : forall y c x,
  lookup_b (y :: c) x = if N.eqb (idn (bvar y)) x then Some y else lookup_b c x.
Proof. reflexivity. Qed.
Lemma lookup_b_is_Some : forall c x, In x (ids c) -> exists b, lookup_b c x = Some b.
Proof.
  intros c x H. destruct (lookup_b c x) eqn:E; eauto.
  apply lookup_b_None in E. tauto.
Qed.
Lemma lookup_b_same_set : forall c c' x,
  NoDup (ids c) -> NoDup (ids c') -> (forall b, In b c <-> In b c') -> lookup_b c x = lookup_b c' x.
Proof.
  intros c c' x H1 H2 H.
  destruct (lookup_b c x) eqn:E.
  - apply lookup_b_Some in E. destruct E as [E1 E2]. subst x.
    symmetry; apply lookup_b_In; auto. apply H; auto.
  - destruct (lookup_b c' x) eqn:E'; auto.
    apply lookup_b_Some in E'. destruct E' as [E1 E2]. subst x.
    apply H in E1. apply lookup_b_In in E1; auto. congruence.
Qed.

Lemma has_ext_lookup : forall c c' x k t, lookup_b c (idn x) = lookup_b c' (idn x) -> has c x k t = has c' x k t.
Proof. unfold has; intros c c' x k t H; rewrite H; auto. Qed.

Lemma existsb_false_In : forall {A} (f : A -> bool) l x, existsb f l = false -> In x l -> f x = false.
Proof.
  intros A f l x H Hx. destruct (f x) eqn:E; auto.
  assert (existsb f l = true) by (apply existsb_exists; eauto). congruence.
Qed.
Lemma combine_map_fst : forall {A B} (a : list A) (b : list B), length a = length b -> map fst (combine a b) = a.
Proof.
  induction a as [|x a IH]; intros [|y b] H; simpl in *; try discriminate; auto.
  f_equal; apply IH; lia.
Qed.
Lemma combine_map_snd : forall {A B} (a : list A) (b : list B), length a = length b -> map snd (combine a b) = b.
Proof.
  induction a as [|x a IH]; intros [|y b] H; simpl in *; try discriminate; auto.
  f_equal; apply IH; lia.
Qed.
Lemma forallb_combine : forall {A B} (P : A * B -> bool) (a : list A) (b : list B),
  (forall n x y, nth_error a n = Some x -> nth_error b n = Some y -> P (x, y) = true) ->
  forallb P (combine a b) = true.
Proof.
  induction a as [|x a IH]; intros [|y b] H; simpl; auto.
  rewrite (H O x y); simpl; auto.
  apply IH. intros n x' y' H1 H2. apply (H (S n)); auto.
Qed.
Lemma split_lastn_app : forall a b, split_lastn (length b) (a ++ b) = Some (a, b).
Proof.
  intros a b; unfold split_lastn. rewrite app_length.
  destruct (Nat.leb (length b) (length a + length b)) eqn:E.
  - replace (length a + length b - length b)%nat with (length a) by lia.
    rewrite firstn_app, skipn_app, firstn_all, skipn_all, Nat.sub_diag; simpl.
    rewrite app_nil_r; auto.
  - apply Nat.leb_gt in E; lia.
Qed.
Lemma split_lastn_Some : forall n c a b, split_lastn n c = Some (a, b) -> c = a ++ b /\ length b = n.
Proof.
  unfold split_lastn; intros n c a b H.
  destruct (Nat.leb n (length c)) eqn:E; try discriminate.
  apply Nat.leb_le in E. inversion H; subst. split.
  - symmetry; apply firstn_skipn.
  - rewrite skipn_length. lia.
Qed.

Lemma kt_eqb_eq : forall a b, kt_eqb a b = true <-> bchi a = bchi b /\ bty a = bty b.
Proof. intros; unfold kt_eqb; rewrite andb_true_iff, chi_eqb_eq, ty_eqb_eq; tauto. Qed.
Lemma kt_eqb_refl : forall a, kt_eqb a a = true.
Proof. intros; apply kt_eqb_eq; auto. Qed.
Lemma ctx_match_refl : forall a, ctx_match a a = true.
Proof. induction a; simpl; auto. rewrite N.eqb_refl, kt_eqb_refl; auto. Qed.
(* position-wise same kinds and types *)
Definition same_kt (a b : ctx) : Prop := Forall2 (fun x y => bchi x = bchi y /\ bty x = bty y) a b.
Lemma same_kt_refl : forall a, same_kt a a.
Proof. induction a; constructor; auto. Qed.
Lemma same_kt_sym : forall a b, same_kt a b -> same_kt b a.
Proof. intros a b H; induction H; constructor; auto. destruct H; auto. Qed.
Lemma same_kt_app : forall a a' b b', same_kt a a' -> same_kt b b' -> same_kt (a ++ b) (a' ++ b').
Proof.
  intros a a' b b' H Hb; induction H; simpl; auto. constructor; auto.
Qed.
Lemma same_kt_trans a b c : same_kt a b -> same_kt b c -> same_kt a c.
Proof.
  intros H; revert c. induction H as [|x y a b [E1 E2] H IH]; intros c K; inversion K; subst; constructor.
  - match goal with HK : _ /\ _ |- _ => destruct HK end. split; congruence.
  - apply IH. assumption.
Qed.
Lemma same_kt_length : forall a b, same_kt a b -> length a = length b.
Proof. intros a b H; induction H; simpl; auto. Qed.
Lemma sig_match_same_kt : forall a a' s, same_kt a' a -> sig_match a s = true -> sig_match a' s = true.
Proof.
  intros a a' s H; revert s; induction H as [|x y a' a [H1 H2] H IH]; intros [|z s] Hm; simpl in *; auto; try discriminate.
  btrue. apply kt_eqb_eq in H0. destruct H0. apply kt_eqb_eq. split; congruence. auto.
Qed.
Lemma sig_match_iff : forall a s, sig_match a s = true <-> same_kt a s.
Proof.
  induction a as [|x a IH]; intros [|y s]; simpl; split; intros H; try discriminate; try constructor; try inversion H; auto.
  - btrue. apply kt_eqb_eq; auto.
  - btrue. apply IH; auto.
  - subst. btrue. apply kt_eqb_eq; auto. apply IH; auto.
Qed.

Section StmtInd.
  Variable P : stmt -> Prop.
  Hypothesis HSub : forall re next, P next -> P (Substitute re next).
  Hypothesis HCall : forall l args, P (Call l args).
  Hypothesis HLet : forall v t tag args next, P next -> P (Let v t tag args next).
  Hypothesis HSwitch : forall v t cls, Forall (fun c => P (cl_body c)) cls -> P (Switch v t cls).
  Hypothesis HCreate : forall v t env cls next, Forall (fun c => P (cl_body c)) cls -> P next -> P (Create v t env cls next).
  Hypothesis HInvoke : forall v tag t args, P (Invoke v tag t args).
  Hypothesis HLit : forall n v next, P next -> P (Literal n v next).
  Hypothesis HOp : forall a o b v next, P next -> P (Op a o b v next).
  Hypothesis HPrint : forall nl v next, P next -> P (PrintI64 nl v next).
  Hypothesis HIfC : forall so a b t e, P t -> P e -> P (IfC so a b t e).
  Hypothesis HExit : forall v, P (Exit v).
  Fixpoint stmt_ind2 (s : stmt) : P s :=
    let go := fix go (cls : list (ident * ctx * stmt)) : Forall (fun c => P (cl_body c)) cls :=
      match cls with
      | [] => Forall_nil _
      | c :: r => Forall_cons c (match c as c0 return P (cl_body c0) with (_, b) => stmt_ind2 b end) (go r)
      end in
    match s with
    | Substitute re next => HSub re next (stmt_ind2 next)
    | Call l args => HCall l args
    | Let v t tag args next => HLet v t tag args next (stmt_ind2 next)
    | Switch v t cls => HSwitch v t cls (go cls)
    | Create v t env cls next => HCreate v t env cls next (go cls) (stmt_ind2 next)
    | Invoke v tag t args => HInvoke v tag t args
    | Literal n v next => HLit n v next (stmt_ind2 next)
    | Op a o b v next => HOp a o b v next (stmt_ind2 next)
    | PrintI64 nl v next => HPrint nl v next (stmt_ind2 next)
    | IfC so a b t e => HIfC so a b t e (stmt_ind2 t) (stmt_ind2 e)
    | Exit v => HExit v
    end.
End StmtInd.

(* unfolding of the nested fixes over clauses *)
Lemma fv_switch : forall v t cls, fv (Switch v t cls) = add (idn v) (fv_clauses cls).
Proof.
  intros; reflexivity.
Qed.
Lemma fv_create : forall v t e cls next,
  fv (Create v t e cls next) = union (fv_clauses cls) (remove (idn v) (fv next)).
Proof.
  intros; reflexivity.
Qed.
Lemma fv_clauses_In : forall x cls,
  In x (fv_clauses cls) <-> exists c, In c cls /\ In x (fv (cl_body c)) /\ ~ In x (ids (cl_ctx c)).
Proof.
  intros x cls; induction cls as [|[[xt cc] b] r IH]; simpl.
  - split; [tauto|]. intros [c [[] _]].
  - rewrite union_In, remove_all_In, IH. split.
    + intros [[H1 H2]|[c [H1 H2]]].
      * exists (xt, cc, b). auto.
      * exists c; auto.
    + intros [c [[<-|H1] H2]]; simpl in *; auto. right; exists c; auto.
Qed.

Definition ax_clauses (S : sigs) (c : ctx) (cls : list clause) : bool :=
  forallb (fun cl => ax_check S (cl_ctx cl ++ c) (cl_body cl)) cls.
Lemma ax_check_switch : forall S c v t cls,
  ax_check S c (Switch v t cls) = has c v Prd t && cls_ok S t cls && ax_clauses S c cls.
Proof.
  intros; simpl. f_equal. induction cls as [|[[x cc] b] r IH]; simpl; auto.
  unfold cl_ctx, cl_body; simpl; try (rewrite IH; auto).
Qed.
Lemma ax_check_create : forall S c v t e cls next,
  ax_check S c (Create v t e cls next) =
  cls_ok S t cls && ax_clauses S c cls && ax_check S (mkb v Cns t :: c) next.
Proof.
  intros; simpl. f_equal. f_equal. induction cls as [|[[x cc] b] r IH]; simpl; auto.
  unfold cl_ctx, cl_body; simpl; try (rewrite IH; auto).
Qed.

Fixpoint binders_cls (cls : list clause) : list N :=
  match cls with
  | [] => []
  | c :: r => ids (cl_ctx c) ++ binders (cl_body c) ++ binders_cls r
  end.
Lemma binders_switch : forall v t cls, binders (Switch v t cls) = binders_cls cls.
Proof. intros; simpl. induction cls as [|[[x cc] b] r IH]; simpl; auto; try (rewrite IH; auto). Qed.
Lemma binders_create : forall v t e cls next,
  binders (Create v t e cls next) = idn v :: binders_cls cls ++ binders next.
Proof.
  intros; simpl. f_equal. f_equal. induction cls as [|[[x cc] b] r IH]; simpl; auto; try (rewrite IH; auto).
Qed.
Lemma binders_cls_In : forall cls c x, In c cls -> In x (ids (cl_ctx c) ++ binders (cl_body c)) -> In x (binders_cls cls).
Proof.
  induction cls as [|c0 r IH]; intros c x H Hx; simpl in *; [tauto|].
  destruct H as [->|H].
  - rewrite app_assoc. apply in_or_app; auto.
  - apply in_or_app; right. apply in_or_app; right. eapply IH; eauto.
Qed.

Fixpoint size_cls (cls : list clause) : nat :=
  match cls with [] => O | c :: r => (stmt_size (cl_body c) + size_cls r)%nat end.
Lemma size_switch : forall v t cls, stmt_size (Switch v t cls) = S (size_cls cls).
Proof. intros; simpl. f_equal. induction cls as [|[[x cc] b] r IH]; simpl; auto. Qed.
Lemma size_create : forall v t e cls next,
  stmt_size (Create v t e cls next) = S (size_cls cls + stmt_size next).
Proof. intros; simpl. f_equal. f_equal. induction cls as [|[[x cc] b] r IH]; simpl; auto. Qed.
Lemma size_cls_In : forall cls c, In c cls -> (stmt_size (cl_body c) <= size_cls cls)%nat.
Proof.
  induction cls as [|c0 r IH]; intros c H; simpl in *; [tauto|].
  destruct H as [->|H]; [lia|]. apply IH in H. lia.
Qed.

Definition lin_clauses_sw (S : sigs) (c0 : ctx) (cls : list clause) : bool :=
  forallb (fun cl => lin_check S (c0 ++ cl_ctx cl) (cl_body cl)) cls.
Definition lin_clauses_cr (S : sigs) (env : ctx) (cls : list clause) : bool :=
  forallb (fun cl => lin_check S (cl_ctx cl ++ env) (cl_body cl)) cls.
Lemma lin_check_switch : forall S c v t cls,
  lin_check S c (Switch v t cls) =
  nodupb (ids c) &&
  match split_lastn 1 c with
  | Some (c0, [b]) =>
      N.eqb (idn (bvar b)) (idn v) && chi_eqb (bchi b) Prd && ty_eqb (bty b) t && cls_ok S t cls
      && lin_clauses_sw S c0 cls
  | _ => false
  end.
Proof.
  intros; simpl. f_equal. destruct (split_lastn 1 c) as [[c0 [|b [|]]]|]; auto.
  f_equal. induction cls as [|[[x cc] bd] r IH]; simpl; auto.
  unfold cl_ctx, cl_body; simpl; try (rewrite IH; auto).
Qed.
Lemma lin_check_create : forall S c v t env cls next,
  lin_check S c (Create v t (Some env) cls next) =
  nodupb (ids c) &&
  match split_lastn (length env) c with
  | Some (c0, tl) =>
      ctx_match tl env && cls_ok S t cls && lin_clauses_cr S env cls
      && lin_check S (c0 ++ [mkb v Cns t]) next
  | None => false
  end.
Proof.
  intros; simpl. f_equal. destruct (split_lastn (length env) c) as [[c0 tl]|]; auto.
  f_equal. f_equal. induction cls as [|[[x cc] bd] r IH]; simpl; auto.
  unfold cl_ctx, cl_body; simpl; try (rewrite IH; auto).
Qed.
