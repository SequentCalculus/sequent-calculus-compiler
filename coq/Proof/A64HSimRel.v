(* C07, forward simulation for HEAP statements on AArch64, part 1: the state relation between a configuration of the
   heap-instrumented linear machine (Sem/AxHeap.v: environment entries carry the block pointer, the abstract allocator
   state evolves by Heap.step) and a state of Sem/A64Sem.v (x86-64: Proof/X86HSimRel.v); the representation of values
   in heap words is the shared one of Proof/HRep.v with JL := A64.jump_length (4 bytes per table entry) and
   INT := in64 (the integer statements of AArch64 are exact on 64-bit values only).

     hvrep   position i of the environment: an `ext i64` variable has its 64-bit value in the SECOND temporary; every
             other variable has the block pointer of the machine's entry in the FIRST and the data word in the SECOND
             temporary (registers X(2i+4), X(2i+5) for i < 13, spill slots from position 13 on);
     hrel    frame as in Proof/A64SimRel.v (SP = sp = 0 mod 16, 144 bytes of room), HEAP = X0 / FREE = X1 = reuse list /
             deferred list of the abstract state, `abs_heap` = the abstract state up to zero padding (`heq`, shared). *)
From Coq Require Import List ZArith NArith String Bool Lia FMapPositive.
From SCC Require Import Base.Sexp Lang.AxSyn Sem.AxSem Sem.AxHeap Model.ParMoves Model.Backend Model.A64 Sem.A64Sem
     Generated.Constants Proof.A64State Proof.A64ImmHw Proof.A64Imm Proof.A64Sel Proof.A64PM Proof.A64Exec
     Proof.A64MemSubst Proof.SubstGraph Proof.SubstBackends Proof.A64Subst Proof.A64Wf Proof.A64Print
     Proof.A64SimRel Proof.A64Mem Proof.HRep.
From SCC Require Model.Heap Proof.X86Mem Proof.X86HeapDefs Proof.X86HFrame Proof.HeapRep Proof.X86HSimRel.
Import ListNotations.
Open Scope Z_scope.
Open Scope list_scope.

Notation heq := X86HeapDefs.heq.
Notation P3 := X86HeapDefs.P3.
Notation pad3 := X86HeapDefs.pad3.
Notation P03 := X86HFrame.P03.
Notation hlookup_nth := X86HSimRel.hlookup_nth.
Notation henv_ctx_nth := X86HSimRel.henv_ctx_nth.

(* the shared agreement `heq`, read on an AArch64 state *)
Lemma heq_eqB a' a hs : st_eqB a' a -> heq a hs -> heq a' hs.
Proof. apply X86HeapDefs.heq_eqB. Qed.
Lemma heq_abs_ps F s hs x : heq (abs_heap F s) hs -> is_blk x ->
  pad3 (Heap.ps (Heap.m hs x)) = [hword s (x + 16); hword s (x + 32); hword s (x + 48)] /\ Heap.hdr (Heap.m hs x) = hword s x.
Proof. intros (_ & _ & _ & H) Hx. destruct (H x Hx) as [A B]. split; [now rewrite <- B|now rewrite <- A]. Qed.
Lemma obj_blocks_abs s : forall k p, Heap.obj_blocks k (abs_mem s) p = wblocks k (hword s) p.
Proof. induction k as [|k IH]; intros p; cbn [Heap.obj_blocks X86HeapDefs.wblocks]; [reflexivity|]. f_equal. apply IH. Qed.
Lemma heq_slots_agree F s hs : heq (abs_heap F s) hs -> slots_agree (Heap.m hs) (hword s).
Proof. intros H b Hb. exact (proj1 (heq_abs_ps F s hs b H Hb)). Qed.
(* the pointers the instrumented machine gives to the variables loaded from a represented object *)
Lemma load_ptrs_words F s hs lk fs q :
  heq (abs_heap F s) hs -> P03 hs -> fs <> [] ->
  HeapRep.rep_flds lk (Heap.m hs) fs q ->
  Forall is_blk (wblocks (Heap.nlinks (List.length fs)) (hword s) q) ->
  load_ptrs hs (List.length fs) q =
    map (hword s) (skipn (List.length (waddrs (Heap.nlinks (List.length fs)) (hword s) q) - List.length fs)
                         (waddrs (Heap.nlinks (List.length fs)) (hword s) q)).
Proof.
  intros HQ K NE RF FB. inversion RF as [|fs0 q0 j pl _ Hlk HL HF RS]; subst; [congruence|].
  pose proof (HeapRep.reps_length _ _ _ _ RS) as Lpl.
  unfold load_ptrs. rewrite <- Hlk in *.
  rewrite (X86HFrame.obj_fields_words hs (hword s) (heq_slots_agree F s hs HQ) K (lk q) q FB).
  - unfold Heap.lastn. rewrite map_length, <- skipn_map. reflexivity.
  - rewrite HF, app_length, repeat_length, Lpl. pose proof (X86HFrame.nlinks_bound (List.length fs)). rewrite <- Hlk in *.
    assert (0 < List.length fs)%nat by (destruct fs; [congruence|cbn; lia]). lia.
Qed.

Section HRel.
Variable types : list tydecl.
(* what the data word of a closure points to: (address, type name, clauses, captured context) *)
Variable CLO : Z -> ident -> list clause -> ctx -> Prop.
Notation xrep := (HRep.xrep types CLO jump_length in64).

Inductive hvrep (s : astate) (sp : Z) (i : nat) : binding -> value -> Z -> Prop :=
| hv_int b z q t :
    bchi b = Ext -> bty b = I64 -> atpos Snd i = Ok t -> lget s sp t = Some z -> in64 z -> hvrep s sp i b (VInt z) q
| hv_ptr b v q a t1 t2 :
    bchi b <> Ext -> chi_of v = bchi b -> ty_of v = bty b ->
    atpos Fst i = Ok t1 -> atpos Snd i = Ok t2 -> lget s sp t1 = Some q -> lget s sp t2 = Some a ->
    xrep (hword s) v q a -> hvrep s sp i b v q.

Record hrel (c : ctx) (he : henv) (hs : Heap.st) (s : astate) (sp : Z) : Prop := mk_hrel {
  hr_frame : frame_ok s sp;                 (* SP = sp, 0 mod 16, the spill area inside the stack region *)
  hr_room : STACK_LIMIT + 144 <= sp;        (* room for the pushes around a print call *)
  hr_heapreg : rget s HEAP = Some (Heap.heap hs);
  hr_freereg : rget s FREE = Some (Heap.free hs);
  hr_heq : heq (abs_heap (Heap.frontier hs) s) hs;
  hr_ids : env_ids (erase_env he) = ids c;
  hr_nodup : NoDup (ids c);
  hr_vals : forall i x v q, nth_error he i = Some (x, v, q) -> exists b, nth_error c i = Some b /\ hvrep s sp i b v q
}.

Lemma hrel_length c he hs s sp : hrel c he hs s sp -> List.length he = List.length c.
Proof.
  intros R. pose proof (hr_ids _ _ _ _ _ R) as H. apply (f_equal (@List.length N)) in H.
  unfold env_ids, ids, erase_env in H. now rewrite !map_length in H.
Qed.

Lemma hword_heap s s' a : heap s' = heap s -> hword s' a = hword s a.
Proof. intros E. unfold hword. now rewrite E. Qed.

(* a position i under state s, read as position j (of a binding of the same kind and type) under s': each temporary
   of j holds what the corresponding temporary of i held, and the representation of the value carries over *)
Lemma hvrep_move s s' sp i j b b' v q :
  bchi b' = bchi b -> bty b' = bty b ->
  (forall a, xrep (hword s) v q a -> xrep (hword s') v q a) ->
  (forall n t, allowed n b -> atpos n i = Ok t -> exists t', atpos n j = Ok t' /\ lget s' sp t' = lget s sp t) ->
  hvrep s sp i b v q -> hvrep s' sp j b' v q.
Proof.
  intros KC KT XR MV V. destruct V as [b z q t A B T L I64|b v q a t1 t2 A K1 K2 T1 T2 L1 L2 X].
  - destruct (MV Snd t (or_introl eq_refl) T) as (t' & T' & L').
    eapply hv_int; eauto; congruence.
  - assert (AL : forall n, allowed n b) by (intros n; right; exact A).
    destruct (MV Fst t1 (AL Fst) T1) as (t1' & T1' & L1'). destruct (MV Snd t2 (AL Snd) T2) as (t2' & T2' & L2').
    eapply (hv_ptr s' sp j b' v q a); eauto; congruence.
Qed.
Lemma hvrep_keep_rep s s' sp i b v q :
  (forall a, xrep (hword s) v q a -> xrep (hword s') v q a) ->
  (forall n t, allowed n b -> atpos n i = Ok t -> lget s' sp t = lget s sp t) -> hvrep s sp i b v q -> hvrep s' sp i b v q.
Proof. intros XR K. apply hvrep_move; auto. intros n t AL T. exists t. split; [exact T|exact (K n t AL T)]. Qed.
Lemma hvrep_keep s s' sp i b v q :
  heap s' = heap s ->
  (forall n t, allowed n b -> atpos n i = Ok t -> lget s' sp t = lget s sp t) -> hvrep s sp i b v q -> hvrep s' sp i b v q.
Proof.
  intros HE. apply hvrep_keep_rep. intros a.
  apply (HRep.xrep_ext types CLO jump_length in64 (hword s) (hword s')). intros a0 _. apply hword_heap. exact HE.
Qed.
Lemma hvrep_kind s sp i b b' v q : bchi b' = bchi b -> bty b' = bty b -> hvrep s sp i b v q -> hvrep s sp i b' v q.
Proof. intros K T. apply hvrep_move; auto. intros n t _ Tn. exists t. auto. Qed.

Lemma heq_same_heap F s s' hs :
  heap s' = heap s -> rget s' HEAP = rget s HEAP -> rget s' FREE = rget s FREE ->
  heq (abs_heap F s) hs -> heq (abs_heap F s') hs.
Proof.
  intros HE RH RF. apply heq_eqB. unfold abs_heap, reg_or0. rewrite RH, RF.
  split; [reflexivity|]. split; [reflexivity|]. split; [reflexivity|].
  intros x _. unfold abs_mem. cbn [Heap.m]. now rewrite !(hword_heap s s') by exact HE.
Qed.

(* a state change that keeps the heap, the allocator registers and every live variable location keeps the relation *)
Lemma hrel_keep c he hs s s' sp :
  hrel c he hs s sp -> frame_ok s' sp -> heap s' = heap s ->
  rget s' HEAP = rget s HEAP -> rget s' FREE = rget s FREE ->
  (forall i b n t, nth_error c i = Some b -> allowed n b -> atpos n i = Ok t -> lget s' sp t = lget s sp t) ->
  hrel c he hs s' sp.
Proof.
  intros R F HE RH RF K. destruct R as [F0 Ro Hr Fr HQ Ids ND Vals]. split; auto.
  - now rewrite RH.
  - now rewrite RF.
  - eapply heq_same_heap; eauto.
  - intros i x v q Hn. destruct (Vals i x v q Hn) as (b & Hb & V). exists b. split; [exact Hb|].
    eapply hvrep_keep; [exact HE| |exact V]. intros n t AL T. apply (K i b n t); auto.
Qed.

Lemma hrel_lookup c he hs s sp a x :
  hrel c he hs s sp -> lookup_int (erase_env he) a = Some x ->
  exists i b t, nth_error c i = Some b /\ idn (bvar b) = idn a /\ atpos Snd i = Ok t /\ lget s sp t = Some x /\ in64 x.
Proof.
  intros R H. unfold lookup_int, lookup_id in H.
  destruct (AxSem.lookup (erase_env he) (idn a)) as [[z| |]|] eqn:L; try discriminate.
  inversion H; subst z. destruct (hlookup_nth he (idn a) (VInt x) L) as (i & y & q & Hn & Hy).
  destruct (henv_ctx_nth c he i y _ q (hr_ids _ _ _ _ _ R) Hn) as (b & Hb & Eb).
  destruct (hr_vals _ _ _ _ _ R i y _ q Hn) as (b' & Hb' & V). assert (b' = b) by congruence. subst b'.
  inversion V; subst.
  - exists i, b, t. split; [auto|]. split; [congruence|]. split; [auto|]. split; assumption.
  - match goal with K : chi_of (VInt x) = bchi b |- _ => cbn in K end. congruence.
Qed.

(* a new last variable whose second temporary t has just been written (nothing else changed): the old entries keep
   their representation; the new one is represented in the new state *)
Lemma hrel_extend c he hs s s' sp x b v q t :
  hrel c he hs s sp -> NoDup (ids (c ++ [b])) -> idn (bvar b) = idn x ->
  atpos Snd (List.length c) = Ok t -> preserved_rem s s' sp t -> hvrep s' sp (List.length c) b v q ->
  hrel (c ++ [b]) (he ++ [(x, v, q)]) hs s' sp.
Proof.
  intros R ND EX Ht (PR & HE & _ & _ & F') VN.
  pose proof (hrel_length _ _ _ _ _ R) as LEN. destruct R as [F0 Ro Hr Fr HQ Ids ND0 Vals].
  destruct (atpos_ok _ _ _ Ht) as (_ & NF & NH).
  destruct free_operand as (FA & FB & FC & FD).
  assert (RH : rget s' HEAP = rget s HEAP).
  { apply (PR (AR HEAP)); [exact I|congruence|discriminate|discriminate|discriminate]. }
  assert (RF : rget s' FREE = rget s FREE).
  { apply (PR (AR FREE)); auto. }
  split; auto.
  - now rewrite RH.
  - now rewrite RF.
  - eapply heq_same_heap; eauto.
  - unfold env_ids, ids, erase_env in *. rewrite !map_app. f_equal; [exact Ids|]. cbn. now rewrite EX.
  - intros i y w p Hn. destruct (Nat.lt_ge_cases i (List.length he)) as [L|L].
    + rewrite nth_error_app1 in Hn by exact L. destruct (Vals i y w p Hn) as (b0 & Hb & V).
      exists b0. split; [rewrite nth_error_app1 by lia; exact Hb|].
      eapply hvrep_keep; [exact HE| |exact V]. intros n t0 _ T0.
      destruct (atpos_ok _ _ _ T0) as (((A & B & C) & D) & _). apply PR; auto.
      apply (atpos_other _ _ _ _ _ _ T0 Ht). lia.
    + rewrite nth_error_app2 in Hn by exact L. destruct (i - List.length he)%nat as [|k] eqn:K; cbn in Hn; [|destruct k; discriminate].
      inversion Hn; subst. exists b. split.
      * rewrite nth_error_app2 by lia. replace (i - List.length c)%nat with O by lia. reflexivity.
      * replace i with (List.length c) by lia. exact VN.
Qed.
Lemma hrel_push c he hs s s' sp v z t :
  hrel c he hs s sp -> NoDup (ids (c ++ [mkb v Ext I64])) ->
  atpos Snd (List.length c) = Ok t -> lget s' sp t = Some z -> in64 z -> preserved_rem s s' sp t ->
  hrel (c ++ [mkb v Ext I64]) (he ++ [(v, VInt z, 0)]) hs s' sp.
Proof.
  intros R ND Ht Hv IZ P. apply (hrel_extend c he hs s s' sp v (mkb v Ext I64) (VInt z) 0 t R ND eq_refl Ht P).
  eapply hv_int; eauto.
Qed.

Lemma hrel_prefix c0 b he0 en hs s sp : hrel (c0 ++ [b]) (he0 ++ [en]) hs s sp -> hrel c0 he0 hs s sp.
Proof.
  intros R. pose proof (hrel_length _ _ _ _ _ R) as LEN. rewrite !app_length in LEN. cbn [List.length] in LEN.
  destruct R as [F Ro Hr Fr HQ Ids ND Vals]. split; auto.
  - unfold env_ids, ids, erase_env in *. rewrite !map_app in Ids. cbn [map] in Ids. apply app_inj_tail in Ids. tauto.
  - unfold ids in *. rewrite map_app in ND. clear -ND. induction (map (fun b => idn (bvar b)) c0) as [|x l IH]; cbn in *; [constructor|].
    inversion ND; subst. constructor; auto. intros I. apply H1. apply in_app_iff. now left.
  - intros i x v q Hi. assert (Li : (i < List.length he0)%nat) by (apply nth_error_Some; congruence).
    destruct (Vals i x v q) as (b' & Hb' & V); [rewrite nth_error_app1 by exact Li; exact Hi|].
    exists b'. split; [|exact V]. rewrite nth_error_app1 in Hb' by lia. exact Hb'.
Qed.

(* the last variable of the context, if it is not an integer, and the last entry of the environment *)
Lemma hrel_last_entry c0 b he0 x v q hs s sp :
  hrel (c0 ++ [b]) (he0 ++ [(x, v, q)]) hs s sp -> bchi b <> Ext ->
  List.length he0 = List.length c0 /\ idn x = idn (bvar b) /\ chi_of v = bchi b /\ ty_of v = bty b /\
  exists a t1 t2, atpos Fst (List.length he0) = Ok t1 /\ atpos Snd (List.length he0) = Ok t2 /\
    lget s sp t1 = Some q /\ lget s sp t2 = Some a /\ xrep (hword s) v q a.
Proof.
  intros R NE. pose proof (hrel_length _ _ _ _ _ R) as LEN. rewrite !app_length in LEN. cbn [List.length] in LEN.
  assert (L0 : List.length he0 = List.length c0) by lia.
  destruct (hr_vals _ _ _ _ _ R (List.length he0) x v q) as (b0 & Hb0 & V); [apply nth_error_mid|].
  rewrite L0, nth_error_mid in Hb0. inversion Hb0; subst b0. clear Hb0.
  split; [exact L0|]. split.
  { pose proof (hr_ids _ _ _ _ _ R) as Ids. unfold env_ids, ids, erase_env in Ids. rewrite !map_app in Ids. cbn [map fst] in Ids.
    apply app_inj_tail in Ids as [_ E]. exact E. }
  inversion V as [? z ? ? KE ?|b1 v1 q1 a t1 t2 _ K1 K2 T1 T2 L1 L2 X]; subst; [congruence|]. eauto 10.
Qed.
End HRel.

Arguments hr_frame {types CLO c he hs s sp}.
Arguments hr_room {types CLO c he hs s sp}.
Arguments hr_heapreg {types CLO c he hs s sp}.
Arguments hr_freereg {types CLO c he hs s sp}.
Arguments hr_heq {types CLO c he hs s sp}.
Arguments hr_ids {types CLO c he hs s sp}.
Arguments hr_nodup {types CLO c he hs s sp}.
Arguments hr_vals {types CLO c he hs s sp}.
Arguments hrel_length {types CLO c he hs s sp}.
