(* C08, forward simulation for HEAP statements: what the program-level induction carries along
   (`hinv`: the invariant of the instrumented machine of C09 - InvA with the pointers of the environment as
   roots, chains owned, values represented, the environment typed -, the slot-count invariant P03, and the
   room in the heap region for everything the run will still allocate), progress facts of the machine under
   the relation `hrel` of Proof/RVKSimRel.v, and the initial relation.  The counterpart of Proof/X86HSimProgA.v. *)
From Coq Require Import List ZArith NArith String Bool Lia FMapPositive Permutation.
From SCC Require Import Base.Sexp Lang.AxSyn Sem.AxSem Sem.AxHeap Model.ParMoves Model.Backend Model.RV Sem.RVSem Sem.RVWf
     Model.Linearize Model.LinCheck Generated.Constants Proof.LinBasics Proof.LinTyping
     Proof.RVSel Proof.SubstGraph Proof.SubstBackends Proof.RVSubst Proof.RVSimAddr Proof.BackendInv Proof.RVSimRel Proof.RVSimStmt
     Proof.RVHeapAbs Proof.RVHDefs Proof.RVHMem Proof.RVHBridge Proof.RVKSimRel Proof.RVKSimStmt.
From SCC Require Model.Heap Proof.HeapMore Proof.HeapTrace Proof.HeapRep Proof.AxHeapTyping Proof.AxHeapSafe Proof.AxHeapSubst Proof.X86SimProg Proof.X86HSimProgA.
Import ListNotations.
Open Scope Z_scope.
Open Scope list_scope.

(* facts about the instrumented machine alone, shared with the x86-64 development *)
Notation hsteps_cons := X86HSimProgA.hsteps_cons.
Notation hstep_machine_ops := X86HSimProgA.hstep_machine_ops.
Notation hsubst_total := X86HSimProgA.hsubst_total.
Notation hsubst_names := X86HSimProgA.hsubst_names.
Notation attach_names := X86HSimProgA.attach_names.



Section Inv.
Variable p : prog.
Hypothesis LP : lin_check_prog p = true.

Record hinv (he : henv) (hs : Heap.st) (s : stmt) : Prop := mk_hinv {
  hi_inv : AxHeapSafe.HInv HEAP_BASE he hs;
  hi_wt : AxHeapTyping.cfg_wt p he s;
  hi_p03 : P03 hs;
  hi_fit : forall tr c', hsteps p (mkhc he hs s) tr c' -> Heap.frontier (hc_heap c') + 64 <= LIMIT
}.

Lemma hinv_step he hs s ops he' s' pr :
  hinv he hs s -> hstep p he hs s = HStep ops he' s' pr -> hinv he' (hrun ops hs) s'.
Proof.
  intros [HI WT K FIT] HS.
  destruct (AxHeapSafe.hstep_safe HEAP_BASE p he hs s ops he' s' pr WT HI HS) as (_ & _ & HI').
  split; [exact HI'|eapply AxHeapTyping.hstep_wt; eauto|apply P03_hrun; [exact K|eapply hstep_machine_ops; eauto]|].
  intros tr c' H. apply (FIT (ops ++ tr) c'). eapply hsteps_cons; eauto.
Qed.
Lemma hinv_invA he hs s : hinv he hs s -> exists hl fl cl, InvA HEAP_BASE hs (roots he) hl fl cl.
Proof. intros [(lk & IA & _) _ _ _]. exact IA. Qed.
Lemma hinv_fit0 he hs s : hinv he hs s -> Heap.frontier hs + 64 <= LIMIT.
Proof. intros H. apply (hi_fit _ _ _ H [] (mkhc he hs s)). apply hsteps_refl. Qed.
Lemma hinv_fit1 he hs s ops he' s' pr :
  hinv he hs s -> hstep p he hs s = HStep ops he' s' pr -> Heap.frontier (hrun ops hs) + 64 <= LIMIT.
Proof. intros H HS. apply (hinv_fit0 _ _ _ (hinv_step _ _ _ _ _ _ _ H HS)). Qed.
Lemma hinv_ptrs_ok he hs s : hinv he hs s -> forall en, In en he -> chi_of (h_val en) = Ext -> h_ptr en = 0.
Proof. intros [(lk & _ & _ & ER) _ _ _]. exact (AxHeapSafe.reps_ptrs_ok _ _ _ ER). Qed.
(* the representation of the last entry of the environment *)
Lemma hinv_last_rep he0 x v q hs s : hinv (he0 ++ [(x, v, q)]) hs s -> exists lk, HeapRep.rep lk (Heap.m hs) v q.
Proof.
  intros [(lk & _ & _ & ER) _ _ _]. exists lk. unfold AxHeapSafe.env_rep in ER.
  unfold ptrs in ER. rewrite !map_app in ER. apply HeapRep.reps_app_inv in ER as (p1 & p2 & E & _ & R2).
  cbn [map h_val h_ptr fst snd] in *. inversion R2 as [|v0 vs0 p0 pl0 RV RS]; subst. inversion RS; subst.
  apply app_inj_tail in E as [_ E]. subst p0. exact RV.
Qed.
End Inv.

Section Names.
Variable types : list tydecl.
Variable CLO : Z -> ident -> list clause -> ctx -> Prop.
Local Notation hrel := (hrel types CLO).

Lemma hrel_ctx_of c he hs s : hrel c he hs s -> map h_id he = vars c -> ctx_of he = c.
Proof.
  intros R NM. pose proof (hrel_length R) as LEN.
  apply nth_ext with (d := mkb (""%string, 0%N) Ext I64) (d' := mkb (""%string, 0%N) Ext I64); [unfold ctx_of; now rewrite map_length|].
  intros i Hi. unfold ctx_of in Hi. rewrite map_length in Hi.
  destruct (nth_error he i) as [[[x v] q]|] eqn:He; [|apply nth_error_None in He; lia].
  destruct (hr_vals R i x v q He) as (b & Hb & V).
  unfold ctx_of. rewrite (nth_indep _ _ (binding_of (x, v, q))) by (rewrite map_length; lia).
  rewrite map_nth, (nth_error_nth _ _ _ He), (nth_error_nth _ _ _ Hb).
  assert (EX : x = bvar b).
  { assert (H1 : nth_error (map h_id he) i = Some x) by (rewrite nth_error_map, He; reflexivity).
    rewrite NM in H1. unfold vars in H1. rewrite nth_error_map, Hb in H1. cbn in H1. congruence. }
  assert (EK : chi_of v = bchi b /\ ty_of v = bty b).
  { destruct V as [b z q t A B T Lg|b v q a t1 t2 A K1 K2 T1 T2 L1 L2 X]; cbn; split; congruence. }
  unfold binding_of. cbn [h_id h_val fst snd]. destruct b as [bv bc bt]. cbn in *. destruct EK. subst. reflexivity.
Qed.

Lemma hhas_ext_lookup_int c he hs st a : hrel c he hs st -> has_ext c a = true -> exists x, lookup_int (erase_env he) a = Some x.
Proof.
  intros R H. unfold has_ext, has in H. destruct (lookup_b c (idn a)) as [b|] eqn:L; [|discriminate].
  apply lookup_b_Some in L as [Hin Hid]. apply andb_true_iff in H as [K T]. apply chi_eqb_eq in K. apply ty_eqb_eq in T.
  assert (I : In (idn a) (env_ids (erase_env he))).
  { rewrite (hr_ids R), <- Hid. now apply In_ids. }
  destruct (SimFrag.lookup_of_in (erase_env he) _ I) as (v & Lv). destruct (hlookup_nth he _ _ Lv) as (i & y & q & Hi & Ey).
  destruct (hr_vals R i y v q Hi) as (b' & Hb' & V).
  destruct (henv_ctx_nth c he i y v q (hr_ids R) Hi) as (b0 & Hb0 & Eb0). assert (b0 = b') by congruence. subst b0.
  apply In_nth_error in Hin as (i' & Hi').
  assert (i' = i) by (eapply (ids_nth_inj c i' i b b'); eauto using (hr_nodup R); congruence). subst i'.
  assert (b' = b) by congruence. subst b'.
  inversion V; subst; [|congruence]. exists z. unfold lookup_int, lookup_id. now rewrite Lv.
Qed.
End Names.

Lemma init_hword args a : hword (init_state args) a = 0.
Proof. unfold hword, init_state. cbn [heap]. now rewrite PM.gempty. Qed.

Lemma hentry_rel types CLO c0 args e0 :
  bind (vars c0) (map VInt args) = Some e0 -> NoDup (ids c0) -> SimFrag.ctx_int c0 = true -> (List.length args <= 14)%nat ->
  hrel types CLO c0 (attach e0 []) (Heap.init HEAP_BASE) (init_state args).
Proof.
  intros BD ND CI LE.
  assert (NA : forall r, (r = HEAP \/ r = FREE) -> forall i, (i < List.length args)%nat -> r <> arg_reg i).
  { intros r Hr i _. unfold arg_reg. change RESERVED with 4%N. change HEAP with 2%N in Hr. change FREE with 3%N in Hr. lia. }
  assert (RH : rget (init_state args) HEAP = Some HEAP_BASE) by (rewrite init_regs_other; [reflexivity|apply NA; auto|discriminate]).
  assert (RF : rget (init_state args) FREE = Some (HEAP_BASE + 64)) by (rewrite init_regs_other; [reflexivity|apply NA; auto|discriminate]).
  split.
  - exact RH.
  - exact RF.
  - split; [cbn [abs_heap Heap.heap Heap.init]; unfold reg_or0; now rewrite RH|]. split; [cbn [abs_heap Heap.free Heap.init]; unfold reg_or0; now rewrite RF|]. split; [reflexivity|].
    intros y _. cbn [abs_heap Heap.m Heap.init]. unfold abs_mem. rewrite !init_hword. split; reflexivity.
  - rewrite attach_erase. unfold env_ids. rewrite <- (map_map fst idn), (SimFrag.bind_ids _ _ _ BD). unfold vars, ids. now rewrite map_map.
  - exact ND.
  - intros i x v q Hi. destruct (attach_nth _ _ _ _ _ _ Hi) as [He _].
    destruct (SimFrag.bind_nth _ _ _ _ _ _ BD He) as (Hx & Hv).
    rewrite nth_error_map in Hv. destruct (nth_error args i) as [a|] eqn:Ha; [|discriminate]. cbn in Hv. inversion Hv; subst v.
    unfold vars in Hx. rewrite nth_error_map in Hx. destruct (nth_error c0 i) as [b|] eqn:Hb; [|discriminate].
    assert (Li : (i < List.length args)%nat) by (apply nth_error_Some; congruence).
    destruct (SimFrag.ctx_int_nth c0 i b CI Hb) as (K & T).
    exists b. split; [reflexivity|].
    apply (hv_int types CLO _ i b a q (pos_reg Snd i) K T); [apply rtpos_lt; lia|].
    replace (pos_reg Snd i) with (arg_reg i) by (unfold pos_reg, arg_reg; cbn [tnum_n]; lia).
    now apply init_regs_arg.
Qed.
