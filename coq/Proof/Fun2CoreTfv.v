(* Membership lemmas for core_lang's TypedFreeVars as modelled in Model/Fun2Core.v ([tfv_*], a sorted
   list standing for BTreeSet<ContextBinding>).  Only what the simulation proof needs:
   - [In b (tfv_X x vars) <-> In b vars \/ In b (tfv_X x [])]   (the accumulator is transparent)
   - one equation per constructor, in terms of [In]
   - a binder removes at most the IDENTICAL binding, and everything else stays.
   No sortedness is needed for any of these.  That a binder does remove its own binding ([fvt_mu_iff],
   [fvc_cons_iff]) needs it: the second half shows that the derived Ord is a strict total order and that the sets
   are strictly sorted ([bsorted], [tfv_sorted]).  The file also holds the definitions [fvt], [fvs], [fvc],
   [tfv_clauses], [blt], [bsorted] that statements elsewhere use. *)
From Coq Require Import List ZArith NArith String Bool Lia Sorted OrderedTypeEx.
From SCC Require Import Base.Sexp Lang.SynUtil Lang.CoreSyn Proof.CoreInd.
From SCC Require Import Lang.FunSyn Lang.FunTy Model.Fun2Core.
Import ListNotations.
Open Scope list_scope.

Lemma cident_compare_eq : forall a b, cident_compare a b = Eq -> a = b.
Proof.
  intros [a1 a2] [b1 b2]. unfold cident_compare. simpl.
  destruct (String.compare a1 b1) eqn:E; try discriminate.
  intros H. apply String.compare_eq_iff in E. apply N.compare_eq in H. subst. reflexivity.
Qed.
Lemma cchi_compare_eq : forall a b, cchi_compare a b = Eq -> a = b.
Proof. intros [|] [|]; simpl; intros H; congruence. Qed.
Lemma cty_compare_eq : forall a b, cty_compare a b = Eq -> a = b.
Proof.
  intros [|x] [|y]; simpl; intros H; try congruence. apply cident_compare_eq in H. subst. reflexivity.
Qed.
Lemma cbinding_compare_eq : forall a b, cbinding_compare a b = Eq -> a = b.
Proof.
  intros [a1 a2 a3] [b1 b2 b3]. unfold cbinding_compare. simpl.
  destruct (cident_compare a1 b1) eqn:E1; try discriminate.
  destruct (cchi_compare a2 b2) eqn:E2; try discriminate.
  intros E3. apply cident_compare_eq in E1. apply cchi_compare_eq in E2. apply cty_compare_eq in E3.
  subst. reflexivity.
Qed.

Lemma In_bset_insert : forall b x s, In b (bset_insert x s) <-> b = x \/ In b s.
Proof.
  intros b x s. induction s as [|y r IH]; simpl.
  - split; [intros [H|[]]; left; auto | intros [H|[]]; left; auto].
  - destruct (cbinding_compare x y) eqn:E; simpl.
    + apply cbinding_compare_eq in E. subst y. split; [intros H; right; exact H|].
      intros [H|H]; [left; auto | exact H].
    + split; [intros [H|H]; [left; auto | right; exact H] | intros [H|H]; [left; auto | right; exact H]].
    + rewrite IH. split.
      * intros [H|[H|H]]; auto.
      * intros [H|[H|H]]; auto.
Qed.

Lemma In_bset_remove_1 : forall b x s, In b (bset_remove x s) -> In b s.
Proof.
  intros b x s. induction s as [|y r IH]; simpl; [auto|].
  destruct (cbinding_compare x y); simpl; intros H; auto.
  destruct H as [H|H]; auto.
Qed.
Lemma In_bset_remove_2 : forall b x s, In b s -> b <> x -> In b (bset_remove x s).
Proof.
  intros b x s. induction s as [|y r IH]; simpl; [auto|].
  intros Hin Hne. destruct (cbinding_compare x y) eqn:E; simpl.
  - apply cbinding_compare_eq in E. subst y. destruct Hin as [H|H]; [congruence | exact H].
  - exact Hin.
  - destruct Hin as [H|H]; [left; exact H | right; apply IH; assumption].
Qed.

Lemma In_bset_union : forall b c a, In b (bset_union a c) <-> In b a \/ In b c.
Proof.
  intros b c. unfold bset_union. induction c as [|x r IH]; intros a; simpl.
  - intuition (try congruence; auto).
  - rewrite IH, In_bset_insert. split.
    + intros [[H|H]|H]; auto.
    + intros [H|[H|H]]; auto.
Qed.

Lemma In_remove_ctx_1 : forall b ctx s, In b (fold_left (fun acc x => bset_remove x acc) ctx s) -> In b s.
Proof.
  intros b ctx. induction ctx as [|x r IH]; intros s; simpl; [auto|].
  intros H. apply IH in H. eapply In_bset_remove_1; exact H.
Qed.
Lemma In_remove_ctx_2 : forall b ctx s,
  In b s -> ~ In b ctx -> In b (fold_left (fun acc x => bset_remove x acc) ctx s).
Proof.
  intros b ctx. induction ctx as [|x r IH]; intros s Hin Hn; simpl; [exact Hin|].
  apply IH; [|intros H; apply Hn; right; exact H].
  apply In_bset_remove_2; [exact Hin|]. intros E. apply Hn. left. symmetry. exact E.
Qed.

Definition tfv_args (l : list carg) (vars : bset) : bset :=
  (fix go (l : list carg) (vars : bset) : bset :=
     match l with [] => vars | y :: r => go r (tfv_arg y vars) end) l vars.
Definition tfv_clauses (l : list cclause) (vars : bset) : bset :=
  (fix go (l : list cclause) (vars : bset) : bset :=
     match l with [] => vars | y :: r => go r (tfv_clause y vars) end) l vars.
Lemma tfv_args_cons : forall y r vars, tfv_args (y :: r) vars = tfv_args r (tfv_arg y vars).
Proof. reflexivity. Qed.
Lemma tfv_clauses_cons : forall y r vars, tfv_clauses (y :: r) vars = tfv_clauses r (tfv_clause y vars).
Proof. reflexivity. Qed.

(* a traversal that threads the accumulator through a list *)
Section Thread.
  Variable X : Type.
  Variable f : X -> bset -> bset.
  Let go := fix go (l : list X) (vars : bset) : bset := match l with [] => vars | y :: r => go r (f y vars) end.
  Lemma thread_acc : forall l,
    Forall (fun a => forall b vars, In b (f a vars) <-> In b vars \/ In b (f a [])) l ->
    forall b vars, In b (go l vars) <-> In b vars \/ In b (go l []).
  Proof.
    intros l H. induction H as [|a r Ha Hr IH]; intros b vars; simpl.
    - intuition (try congruence; auto).
    - rewrite IH, (IH b (f a [])), Ha. intuition (try congruence; auto).
  Qed.
  Lemma thread_preserves : forall (P : bset -> Prop) l,
    Forall (fun a => forall vars, P vars -> P (f a vars)) l -> forall vars, P vars -> P (go l vars).
  Proof. intros P l H. induction H as [|a r Ha Hr IH]; intros vars Hs; simpl; [exact Hs | apply IH; apply Ha; exact Hs]. Qed.
End Thread.

Lemma tfv_acc :
  (forall t b vars, In b (tfv_term t vars) <-> In b vars \/ In b (tfv_term t [])) /\
  (forall a b vars, In b (tfv_arg a vars) <-> In b vars \/ In b (tfv_arg a [])) /\
  (forall c b vars, In b (tfv_clause c vars) <-> In b vars \/ In b (tfv_clause c [])) /\
  (forall s b vars, In b (tfv_stmt s vars) <-> In b vars \/ In b (tfv_stmt s [])).
Proof.
  apply core_mutind.
  - intros c v t b vars. simpl. rewrite In_bset_insert. simpl. intuition (try congruence; auto).
  - intros n b vars. simpl. intuition (try congruence; auto).
  - intros a o b0 IHa IHb b vars. simpl. rewrite IHb, IHa. rewrite (IHb b (tfv_term a [])). intuition (try congruence; auto).
  - intros c v s t IHs b vars. simpl. rewrite !In_bset_union. simpl. intuition (try congruence; auto).
  - intros c x args t H b vars. change (tfv_term (CXtor c x args t) vars) with (tfv_args args vars).
    change (tfv_term (CXtor c x args t) []) with (tfv_args args []). apply (thread_acc _ tfv_arg). exact H.
  - intros c cls t H b vars. change (tfv_term (CXCase c cls t) vars) with (tfv_clauses cls vars).
    change (tfv_term (CXCase c cls t) []) with (tfv_clauses cls []). apply (thread_acc _ tfv_clause). exact H.
  - intros p IH b vars. simpl. apply IH.
  - intros k IH b vars. simpl. apply IH.
  - intros c x ctx body IH b vars. simpl. rewrite !In_bset_union. simpl. intuition (try congruence; auto).
  - intros p t k IHp IHk b vars. simpl. rewrite IHk, IHp. rewrite (IHk b (tfv_term p [])). intuition (try congruence; auto).
  - intros so a b0 t e IHa IHb IHt IHe b vars. simpl.
    rewrite IHe, IHt. rewrite (IHe b (tfv_stmt t _)). rewrite (IHt b (match b0 with Some b' => tfv_term b' (tfv_term a []) | None => tfv_term a [] end)).
    destruct b0 as [b'|]; simpl in IHb.
    + rewrite IHb, IHa. rewrite (IHb b (tfv_term a [])). intuition (try congruence; auto).
    + rewrite IHa. intuition (try congruence; auto).
  - intros nl a next IHa IHn b vars. simpl. rewrite IHn, IHa. rewrite (IHn b (tfv_term a [])). intuition (try congruence; auto).
  - intros f args t H b vars. change (tfv_stmt (CCall f args t) vars) with (tfv_args args vars).
    change (tfv_stmt (CCall f args t) []) with (tfv_args args []). apply (thread_acc _ tfv_arg). exact H.
  - intros a t IH b vars. simpl. apply IH.
Qed.

Definition tfv_term_acc := proj1 tfv_acc.
Definition tfv_arg_acc := proj1 (proj2 tfv_acc).
Definition tfv_clause_acc := proj1 (proj2 (proj2 tfv_acc)).
Definition tfv_stmt_acc := proj2 (proj2 (proj2 tfv_acc)).

Lemma tfv_args_acc : forall l b vars, In b (tfv_args l vars) <-> In b vars \/ In b (tfv_args l []).
Proof. intros l. apply (thread_acc _ tfv_arg). apply Forall_forall. intros a _. apply tfv_arg_acc. Qed.
Lemma tfv_clauses_acc : forall l b vars, In b (tfv_clauses l vars) <-> In b vars \/ In b (tfv_clauses l []).
Proof. intros l. apply (thread_acc _ tfv_clause). apply Forall_forall. intros a _. apply tfv_clause_acc. Qed.

Definition fvt (t : cterm) : bset := tfv_term t [].
Definition fvs (s : cstmt) : bset := tfv_stmt s [].
Definition fva (l : list carg) : bset := tfv_args l [].
Definition fvc (l : list cclause) : bset := tfv_clauses l [].

Lemma fvt_var : forall b c v ty, In b (fvt (CXVar c v ty)) <-> b = mkcb v c ty.
Proof. intros. unfold fvt. simpl. intuition (try congruence; auto). Qed.
Lemma fvt_lit : forall b n, In b (fvt (CLit n)) <-> False.
Proof. intros. unfold fvt. simpl. intuition (try congruence; auto). Qed.
Lemma fvt_op : forall b x o y, In b (fvt (COp x o y)) <-> In b (fvt x) \/ In b (fvt y).
Proof. intros. unfold fvt. simpl. rewrite tfv_term_acc. intuition (try congruence; auto). Qed.
Lemma fvt_mu_1 : forall b c v s ty, In b (fvt (CMu c v s ty)) -> In b (fvs s).
Proof.
  intros b c v s ty H. unfold fvt in H. simpl in H. apply In_bset_union in H. destruct H as [[]|H].
  eapply In_bset_remove_1. exact H.
Qed.
Lemma fvt_mu_2 : forall b c v s ty, In b (fvs s) -> b <> mkcb v (flip_chi c) ty -> In b (fvt (CMu c v s ty)).
Proof.
  intros b c v s ty H Hne. unfold fvt. simpl. apply In_bset_union. right. apply In_bset_remove_2; assumption.
Qed.
Lemma fvt_xtor : forall b c x args ty, In b (fvt (CXtor c x args ty)) <-> In b (fva args).
Proof. intros. reflexivity. Qed.
Lemma fvt_xcase : forall b c cls ty, In b (fvt (CXCase c cls ty)) <-> In b (fvc cls).
Proof. intros. reflexivity. Qed.

Lemma fva_nil : forall b, In b (fva []) <-> False.
Proof. intros. unfold fva. simpl. intuition (try congruence; auto). Qed.
Lemma fva_cons : forall b a r, In b (fva (a :: r)) <->
  In b (match a with CProducer p => fvt p | CConsumer k => fvt k end) \/ In b (fva r).
Proof.
  intros b a r. unfold fva. rewrite tfv_args_cons, tfv_args_acc. destruct a; simpl; intuition (try congruence; auto).
Qed.
Lemma fva_app : forall b l1 l2, In b (fva (l1 ++ l2)) <-> In b (fva l1) \/ In b (fva l2).
Proof.
  intros b l1 l2. induction l1 as [|a r IH]; simpl.
  - split; [intros H; right; exact H | intros [H|H]; [apply fva_nil in H; contradiction | exact H]].
  - rewrite !fva_cons, IH. intuition (try congruence; auto).
Qed.

Lemma fvc_nil : forall b, In b (fvc []) <-> False.
Proof. intros. unfold fvc. simpl. intuition (try congruence; auto). Qed.
Lemma fvc_cons_1 : forall b c x ctx body r, In b (fvc (CClause c x ctx body :: r)) ->
  In b (fvs body) \/ In b (fvc r).
Proof.
  intros b c x ctx body r H. unfold fvc in H. rewrite tfv_clauses_cons, tfv_clauses_acc in H.
  destruct H as [H|H]; [|right; exact H]. simpl in H. apply In_bset_union in H. destruct H as [[]|H].
  left. eapply In_remove_ctx_1. exact H.
Qed.
Lemma fvc_cons_body : forall b c x ctx body r, In b (fvs body) -> ~ In b ctx ->
  In b (fvc (CClause c x ctx body :: r)).
Proof.
  intros b c x ctx body r H Hn. unfold fvc. rewrite tfv_clauses_cons, tfv_clauses_acc. left.
  simpl. apply In_bset_union. right. apply In_remove_ctx_2; assumption.
Qed.
Lemma fvc_cons_tail : forall b cl r, In b (fvc r) -> In b (fvc (cl :: r)).
Proof. intros b cl r H. unfold fvc. rewrite tfv_clauses_cons, tfv_clauses_acc. right. exact H. Qed.

Lemma fvs_cut : forall b p ty k, In b (fvs (CCut p ty k)) <-> In b (fvt p) \/ In b (fvt k).
Proof. intros. unfold fvs, fvt. simpl. rewrite tfv_term_acc. intuition (try congruence; auto). Qed.
Lemma fvs_ifc : forall b so x y t e, In b (fvs (CIfC so x y t e)) <->
  In b (fvt x) \/ In b (match y with Some y' => fvt y' | None => [] end) \/ In b (fvs t) \/ In b (fvs e).
Proof.
  intros. unfold fvs, fvt. simpl. rewrite tfv_stmt_acc. rewrite (tfv_stmt_acc t).
  destruct y as [y'|]; simpl.
  - rewrite tfv_term_acc. intuition (try congruence; auto).
  - intuition (try congruence; auto).
Qed.
Lemma fvs_print : forall b nl x next, In b (fvs (CPrint nl x next)) <-> In b (fvt x) \/ In b (fvs next).
Proof. intros. unfold fvs, fvt. simpl. rewrite tfv_stmt_acc. intuition (try congruence; auto). Qed.
Lemma fvs_call : forall b f args ty, In b (fvs (CCall f args ty)) <-> In b (fva args).
Proof. intros. reflexivity. Qed.
Lemma fvs_exit : forall b x ty, In b (fvs (CExit x ty)) <-> In b (fvt x).
Proof. intros. reflexivity. Qed.

(* arguments made from bindings (share): their free variables are the bindings *)
Lemma fva_arg_of_binding : forall b bs, In b (fva (map arg_of_binding bs)) <-> In b bs.
Proof.
  intros b bs. induction bs as [|x r IH]; simpl.
  - split; [intros H; apply fva_nil in H; contradiction | intros []].
  - rewrite fva_cons, IH. unfold arg_of_binding. destruct x as [v c ty]. simpl.
    destruct c; rewrite fvt_var; simpl; split; intros [H|H]; auto.
Qed.

(* Strict sortedness: the lists produced by tfv_* are strictly increasing w.r.t. the derived Ord, so
   removing a binding really removes it (exactness of [bset_remove]). *)

Lemma string_compare_trans : forall a b c, String.compare a b = Lt -> String.compare b c = Lt -> String.compare a c = Lt.
Proof.
  intros a b c H1 H2. apply String_as_OT.cmp_lt. apply String_as_OT.cmp_lt in H1. apply String_as_OT.cmp_lt in H2.
  eapply String_as_OT.lt_trans; eauto.
Qed.
Lemma string_compare_refl : forall a, String.compare a a = Eq.
Proof. intros a. apply (proj2 (String_as_OT.cmp_eq a a)). reflexivity. Qed.

Lemma cident_compare_refl : forall a, cident_compare a a = Eq.
Proof. intros [a1 a2]. unfold cident_compare. simpl. rewrite string_compare_refl. apply N.compare_refl. Qed.
Lemma cident_compare_trans : forall a b c, cident_compare a b = Lt -> cident_compare b c = Lt -> cident_compare a c = Lt.
Proof.
  intros [a1 a2] [b1 b2] [c1 c2]. unfold cident_compare. simpl.
  destruct (String.compare a1 b1) eqn:E1; try discriminate;
  destruct (String.compare b1 c1) eqn:E2; try discriminate; intros H1 H2.
  - apply String_as_OT.cmp_eq in E1. apply String_as_OT.cmp_eq in E2. subst. rewrite string_compare_refl.
    apply N.compare_lt_iff in H1. apply N.compare_lt_iff in H2. apply N.compare_lt_iff.
    eapply N.lt_trans; eassumption.
  - apply String_as_OT.cmp_eq in E1. subst. rewrite E2. reflexivity.
  - apply String_as_OT.cmp_eq in E2. subst. rewrite E1. reflexivity.
  - rewrite (string_compare_trans _ _ _ E1 E2). reflexivity.
Qed.
Lemma cchi_compare_refl : forall a, cchi_compare a a = Eq.
Proof. intros [|]; reflexivity. Qed.
Lemma cchi_compare_trans : forall a b c, cchi_compare a b = Lt -> cchi_compare b c = Lt -> cchi_compare a c = Lt.
Proof. intros [|] [|] [|]; simpl; congruence. Qed.
Lemma cty_compare_refl : forall a, cty_compare a a = Eq.
Proof. intros [|x]; simpl; [reflexivity | apply cident_compare_refl]. Qed.
Lemma cty_compare_trans : forall a b c, cty_compare a b = Lt -> cty_compare b c = Lt -> cty_compare a c = Lt.
Proof. intros [|x] [|y] [|z]; simpl; try congruence. apply cident_compare_trans. Qed.

Lemma cbinding_compare_refl : forall a, cbinding_compare a a = Eq.
Proof.
  intros [a1 a2 a3]. unfold cbinding_compare. simpl.
  rewrite cident_compare_refl, cchi_compare_refl. apply cty_compare_refl.
Qed.
Lemma cbinding_compare_trans : forall a b c,
  cbinding_compare a b = Lt -> cbinding_compare b c = Lt -> cbinding_compare a c = Lt.
Proof.
  intros [a1 a2 a3] [b1 b2 b3] [c1 c2 c3]. unfold cbinding_compare. simpl.
  destruct (cident_compare a1 b1) eqn:E1; try discriminate;
  destruct (cident_compare b1 c1) eqn:E2; try discriminate.
  - apply cident_compare_eq in E1. apply cident_compare_eq in E2. subst. rewrite cident_compare_refl.
    destruct (cchi_compare a2 b2) eqn:F1; try discriminate;
    destruct (cchi_compare b2 c2) eqn:F2; try discriminate; intros H1 H2.
    + apply cchi_compare_eq in F1. apply cchi_compare_eq in F2. subst. rewrite cchi_compare_refl.
      eapply cty_compare_trans; eauto.
    + apply cchi_compare_eq in F1. subst. rewrite F2. reflexivity.
    + apply cchi_compare_eq in F2. subst. rewrite F1. reflexivity.
    + rewrite (cchi_compare_trans _ _ _ F1 F2). reflexivity.
  - intros _ _. apply cident_compare_eq in E1. subst. rewrite E2. reflexivity.
  - intros _ _. apply cident_compare_eq in E2. subst. rewrite E1. reflexivity.
  - intros _ _. rewrite (cident_compare_trans _ _ _ E1 E2). reflexivity.
Qed.
Lemma cident_compare_antisym : forall a b, cident_compare a b = CompOpp (cident_compare b a).
Proof.
  intros [a1 a2] [b1 b2]. unfold cident_compare. simpl.
  pose proof (String_as_OT.cmp_antisym a1 b1) as Ha. unfold String_as_OT.cmp in Ha. rewrite Ha.
  destruct (String.compare b1 a1); simpl; try reflexivity. apply N.compare_antisym.
Qed.
Lemma cbinding_compare_antisym : forall a b, cbinding_compare a b = CompOpp (cbinding_compare b a).
Proof.
  intros [a1 a2 a3] [b1 b2 b3]. unfold cbinding_compare. simpl. rewrite (cident_compare_antisym a1 b1).
  destruct (cident_compare b1 a1); simpl; try reflexivity.
  assert (Hc : cchi_compare a2 b2 = CompOpp (cchi_compare b2 a2)) by (destruct a2, b2; reflexivity).
  rewrite Hc. destruct (cchi_compare b2 a2); simpl; try reflexivity.
  destruct a3 as [|x], b3 as [|y]; simpl; try reflexivity. apply cident_compare_antisym.
Qed.

Definition blt (a b : cbinding) : Prop := cbinding_compare a b = Lt.
Definition bsorted (s : bset) : Prop := StronglySorted blt s.

Lemma bsorted_insert : forall x s, bsorted s -> bsorted (bset_insert x s).
Proof.
  intros x s H. induction H as [|y r Hr IH Hall]; simpl.
  - repeat constructor.
  - destruct (cbinding_compare x y) eqn:E.
    + constructor; assumption.
    + constructor; [constructor; assumption|]. constructor; [exact E|].
      rewrite Forall_forall in *. intros z Hz. eapply cbinding_compare_trans; [exact E | apply Hall; exact Hz].
    + constructor; [exact IH|]. rewrite Forall_forall in *. intros z Hz. apply In_bset_insert in Hz.
      destruct Hz as [Hz|Hz]; [|apply Hall; exact Hz]. subst z. unfold blt.
      rewrite cbinding_compare_antisym, E. reflexivity.
Qed.
Lemma bsorted_remove : forall x s, bsorted s -> bsorted (bset_remove x s).
Proof.
  intros x s H. induction H as [|y r Hr IH Hall]; simpl; [constructor|].
  destruct (cbinding_compare x y) eqn:E.
  - exact Hr.
  - constructor; assumption.
  - constructor; [exact IH|]. rewrite Forall_forall in *. intros z Hz. apply Hall. eapply In_bset_remove_1. exact Hz.
Qed.
Lemma bsorted_union : forall c a, bsorted a -> bsorted (bset_union a c).
Proof.
  unfold bset_union. induction c as [|x r IH]; intros a H; simpl; [exact H|]. apply IH. apply bsorted_insert. exact H.
Qed.
Lemma bsorted_remove_ctx : forall ctx s, bsorted s -> bsorted (fold_left (fun acc x => bset_remove x acc) ctx s).
Proof. induction ctx as [|x r IH]; intros s H; simpl; [exact H|]. apply IH. apply bsorted_remove. exact H. Qed.

Lemma blt_irrefl : forall a, ~ blt a a.
Proof. intros a H. unfold blt in H. rewrite cbinding_compare_refl in H. discriminate. Qed.

(* exactness of removal on sorted sets *)
Lemma In_bset_remove_3 : forall x s, bsorted s -> ~ In x (bset_remove x s).
Proof.
  intros x s H. induction H as [|y r Hr IH Hall]; simpl; [auto|].
  destruct (cbinding_compare x y) eqn:E.
  - apply cbinding_compare_eq in E. subst y. intros Hin. rewrite Forall_forall in Hall.
    exact (blt_irrefl _ (Hall _ Hin)).
  - intros [Hin|Hin]; [subst y; rewrite cbinding_compare_refl in E; discriminate|].
    rewrite Forall_forall in Hall. pose proof (Hall _ Hin) as Hlt. unfold blt in Hlt.
    rewrite cbinding_compare_antisym, E in Hlt. discriminate.
  - intros [Hin|Hin]; [subst y; rewrite cbinding_compare_refl in E; discriminate | exact (IH Hin)].
Qed.

Lemma tfv_sorted :
  (forall t vars, bsorted vars -> bsorted (tfv_term t vars)) /\
  (forall a vars, bsorted vars -> bsorted (tfv_arg a vars)) /\
  (forall c vars, bsorted vars -> bsorted (tfv_clause c vars)) /\
  (forall s vars, bsorted vars -> bsorted (tfv_stmt s vars)).
Proof.
  apply core_mutind.
  - intros c v t vars H. simpl. apply bsorted_insert. exact H.
  - intros n vars H. exact H.
  - intros a o b IHa IHb vars H. simpl. apply IHb. apply IHa. exact H.
  - intros c v s t IHs vars H. simpl. apply bsorted_union. exact H.
  - intros c x args t H vars Hs. change (tfv_term (CXtor c x args t) vars) with (tfv_args args vars).
    apply (thread_preserves _ tfv_arg bsorted); assumption.
  - intros c cls t H vars Hs. change (tfv_term (CXCase c cls t) vars) with (tfv_clauses cls vars).
    apply (thread_preserves _ tfv_clause bsorted); assumption.
  - intros p IH vars H. simpl. apply IH. exact H.
  - intros k IH vars H. simpl. apply IH. exact H.
  - intros c x ctx body IH vars H. simpl. apply bsorted_union. exact H.
  - intros p t k IHp IHk vars H. simpl. apply IHk. apply IHp. exact H.
  - intros so a b t e IHa IHb IHt IHe vars H. simpl. apply IHe. apply IHt.
    destruct b as [b'|]; simpl in IHb; [apply IHb|]; apply IHa; exact H.
  - intros nl a next IHa IHn vars H. simpl. apply IHn. apply IHa. exact H.
  - intros f args t H vars Hs. change (tfv_stmt (CCall f args t) vars) with (tfv_args args vars).
    apply (thread_preserves _ tfv_arg bsorted); assumption.
  - intros a t IH vars H. simpl. apply IH. exact H.
Qed.
Lemma fvs_sorted : forall s, bsorted (fvs s).
Proof. intros s. apply (proj2 (proj2 (proj2 tfv_sorted))). constructor. Qed.

(* a mu-binder removes exactly its own binding *)
Lemma fvt_mu_iff : forall b c v s ty,
  In b (fvt (CMu c v s ty)) <-> In b (fvs s) /\ b <> mkcb v (flip_chi c) ty.
Proof.
  intros b c v s ty. split.
  - intros H. split; [eapply fvt_mu_1; exact H|]. intros E. subst b.
    unfold fvt in H. simpl in H. apply In_bset_union in H. destruct H as [[]|H].
    exact (In_bset_remove_3 _ _ (fvs_sorted s) H).
  - intros [H1 H2]. apply fvt_mu_2; assumption.
Qed.

(* a clause removes exactly its context *)
Lemma In_remove_ctx_3 : forall b ctx s, bsorted s -> In b ctx -> ~ In b (fold_left (fun acc x => bset_remove x acc) ctx s).
Proof.
  intros b ctx. induction ctx as [|x r IH]; intros s Hs Hin; simpl; [contradiction|].
  destruct Hin as [E|Hin].
  - subst x. intros H. apply In_remove_ctx_1 in H. exact (In_bset_remove_3 _ _ Hs H).
  - apply IH; [apply bsorted_remove; exact Hs | exact Hin].
Qed.
Lemma fvc_cons_iff : forall b c x ctx body r, In b (fvc (CClause c x ctx body :: r)) <->
  (In b (fvs body) /\ ~ In b ctx) \/ In b (fvc r).
Proof.
  intros b c x ctx body r. split.
  - intros H. unfold fvc in H. rewrite tfv_clauses_cons, tfv_clauses_acc in H.
    destruct H as [H|H]; [|right; exact H]. simpl in H. apply In_bset_union in H. destruct H as [[]|H].
    left. split; [eapply In_remove_ctx_1; exact H|]. intros Hc.
    exact (In_remove_ctx_3 _ _ _ (fvs_sorted body) Hc H).
  - intros [[H1 H2]|H]; [apply fvc_cons_body; assumption | apply fvc_cons_tail; exact H].
Qed.
