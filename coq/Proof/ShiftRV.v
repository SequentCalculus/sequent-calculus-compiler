(* C17: the RISC-V back end commutes with the renaming of generated labels ([rv_shift_ok]). *)
From Coq Require Import List ZArith NArith String Ascii Bool Lia.
From SCC Require Import Base.Sexp Lang.AxSyn Model.ParMoves Model.Backend Model.RV Sem.RVWf
  Proof.LabelStrings Proof.LabelGen Proof.LabelShift Proof.LabelsRV.
Import ListNotations.
Local Open Scope string_scope.
Local Open Scope list_scope.

Definition rmap (f : string -> string) (c : rcode) : rcode :=
  match c with
  | JAL x l => JAL x (f l) | LA x l => LA x (f l)
  | BEQ x y l => BEQ x y (f l) | BNE x y l => BNE x y (f l) | BLT x y l => BLT x y (f l)
  | BLE x y l => BLE x y (f l) | BGT x y l => BGT x y (f l) | BGE x y l => BGE x y (f l)
  | LAB l => LAB (f l)
  | c => c
  end.

Section S.
Variable rho : string -> string.
Variables a b : N.
Notation sh := (sh a b).
Notation rn := (map (rmap rho)).
Notation shp := (shp rmap rho a b).
Notation shr := (shr rmap rho a b).
Hypothesis rho_lab : forall k, (a < k)%N -> rho (lab k) = lab (sh k).

Lemma nolab_fixed i : nolab i = true -> rmap rho i = i.
Proof. destruct i; try discriminate; reflexivity. Qed.
Notation rn_nolab := (rn_nolab rmap rho nolab nolab_fixed).
Notation shr_ok := (shr_ok rmap rho a b).

Lemma sk_sh cond body lc : (a <= lc)%N -> skip_if_zero cond (rn body) (sh lc) = shp (skip_if_zero cond body lc).
Proof.
  intros L. unfold skip_if_zero, LabelShift.shp. cbn [fst snd]. rewrite !map_app.
  cbn [map rmap]. rewrite rho_lab by lia. rewrite (sh_add a b lc 1 L). reflexivity.
Qed.
Lemma ite_sh cond th el lc : (a <= lc)%N ->
  if_zero_then_else cond (rn th) (rn el) (sh lc) = shp (if_zero_then_else cond th el lc).
Proof.
  intros L. unfold if_zero_then_else, LabelShift.shp. cbn [fst snd]. rewrite !map_app. cbn [map rmap].
  rewrite !rho_lab by lia. rewrite (sh_add a b lc 1 L), (sh_add a b lc 2 L). reflexivity.
Qed.

Lemma erase_sh t lc : (a <= lc)%N -> r_erase_block t (sh lc) = shp (r_erase_block t lc).
Proof.
  intros L. unfold r_erase_block.
  match goal with |- context [if_zero_then_else TEMP ?th ?el (sh lc)] =>
    change (if_zero_then_else TEMP th el (sh lc)) with (if_zero_then_else TEMP (rn th) (rn el) (sh lc));
    rewrite (ite_sh TEMP th el lc L);
    pose proof (labs_mono (ite_ok lc lc lc TEMP th el (nolab_labs lc th eq_refl) (nolab_labs lc el eq_refl))) as M;
    destruct (if_zero_then_else TEMP th el lc) as [c lc1] end.
  cbn [LabelShift.shp fst snd] in *.
  change ([LW TEMP t REFERENCE_COUNT_OFFSET] ++ rn c) with (rn ([LW TEMP t REFERENCE_COUNT_OFFSET] ++ c)). apply sk_sh. lia.
Qed.
Lemma share_sh t n lc : (a <= lc)%N -> r_share_block_n t n (sh lc) = shp (r_share_block_n t n lc).
Proof. intros L. unfold r_share_block_n. rewrite <- (sk_sh _ _ lc L). reflexivity. Qed.

Lemma erase_fields_sh r t2 : forall l c lc, (a <= lc)%N ->
  fold_left (fun (acc : list rcode * N) (offset : N) =>
               let '(c, lc) := acc in
               let '(c1, lc1) := r_erase_block t2 lc in
               (c ++ [LW t2 r (field_offset Fst offset)] ++ c1, lc1)) l (rn c, sh lc)
  = shp (fold_left (fun (acc : list rcode * N) (offset : N) =>
               let '(c, lc) := acc in
               let '(c1, lc1) := r_erase_block t2 lc in
               (c ++ [LW t2 r (field_offset Fst offset)] ++ c1, lc1)) l (c, lc)).
Proof.
  induction l as [|o l IH]; intros c lc L; cbn [fold_left]; [reflexivity|].
  rewrite (erase_sh t2 lc L). pose proof (labs_mono (erase_ok t2 lc)) as M.
  destruct (r_erase_block t2 lc) as [c1 lc1]. cbn [LabelShift.shp fst snd] in *.
  rewrite <- IH by lia. rewrite !map_app. reflexivity.
Qed.
Lemma acquire_sh t t2 lc : (a <= lc)%N -> acquire_block t t2 (sh lc) = shp (acquire_block t t2 lc).
Proof.
  intros L. unfold acquire_block, erase_fields.
  pose proof (erase_fields_sh HEAP t2 (nseq 0 FIELDS_PER_BLOCK) [] lc L) as EF. cbn [map] in EF. rewrite EF.
  pose proof (erase_fields_ok HEAP t2 lc (nseq 0 FIELDS_PER_BLOCK) ([], lc) (nolab_labs lc [] eq_refl)) as M1. apply labs_mono in M1.
  destruct (fold_left _ (nseq 0 FIELDS_PER_BLOCK) ([], lc)) as [ef lc1]. cbn [LabelShift.shp fst snd] in *.
  match goal with |- context [if_zero_then_else FREE ?th (?p ++ rn ef) (sh lc1)] =>
    change (if_zero_then_else FREE th (p ++ rn ef) (sh lc1)) with (if_zero_then_else FREE (rn th) (rn (p ++ ef)) (sh lc1)) end.
  rewrite ite_sh by lia.
  destruct (if_zero_then_else FREE _ _ lc1) as [inner lc2] eqn:EI.
  assert (M2 : (lc1 <= lc2)%N) by (unfold if_zero_then_else in EI; inversion EI; lia).
  cbn [LabelShift.shp fst snd].
  match goal with |- context [if_zero_then_else HEAP (?p ++ rn inner) ?el (sh lc2)] =>
    change (if_zero_then_else HEAP (p ++ rn inner) el (sh lc2)) with (if_zero_then_else HEAP (rn (p ++ inner)) (rn el) (sh lc2)) end.
  rewrite ite_sh by lia.
  destruct (if_zero_then_else HEAP _ _ lc2) as [outer lc3]. unfold LabelShift.shp; cbn [fst snd]. rewrite map_app. reflexivity.
Qed.


Lemma load_value_sh bd ex blk o m lc : (a <= lc)%N -> load_value bd ex blk o m (sh lc) = shr (load_value bd ex blk o m lc).
Proof.
  intros L. unfold load_value. sb. pose proof (rn_nolab _ (nl_load_field _ _ _ _ _ H)) as R1.
  destruct (bchi bd); [| |rewrite shr_ok, R1; reflexivity].
  all: sb; pose proof (rn_nolab _ (nl_load_field _ _ _ _ _ H0)) as R2; destruct m;
    [rewrite shr_ok, map_app, R1, R2; reflexivity|].
  all: sb; rewrite share_sh by exact L; destruct (r_share_block_n _ 1 lc) as [c3 lc1];
    unfold LabelShift.shp; cbn [fst snd]; rewrite shr_ok, !map_app, R1, R2; reflexivity.
Qed.
Lemma load_values_sh ex blk m : forall l ff lc, (a <= lc)%N ->
  load_values l ex blk ff m (sh lc) = shr (load_values l ex blk ff m lc).
Proof.
  induction l as [|bd l IH]; intros ff lc L; cbn [load_values]; [reflexivity|].
  apply (shr_bind rmap rho a b); [apply load_value_sh; exact L|]. intros c1 lc1 E1.
  destruct (load_value_ok _ _ _ _ _ _ _ _ E1) as [L1 _].
  apply (shr_bind rmap rho a b); [apply IH; lia|]. intros c2 lc2 _. rewrite shr_ok, map_app. reflexivity.
Qed.

Lemma store_fields_sh : forall fuel to_store remaining bp lc, (a <= lc)%N ->
  store_fields fuel to_store remaining bp (sh lc) = shr (store_fields fuel to_store remaining bp lc).
Proof.
  induction fuel as [|fuel IH]; intros to_store remaining bp lc L; cbn [store_fields]; [reflexivity|].
  destruct to_store as [|b0 ts].
  - destruct bp; [|reflexivity]. sb. reflexivity.
  - sb. sb. sb. sb. rewrite acquire_sh by exact L. pose proof (labs_mono (acquire_ok x1 x2 lc)) as M.
    destruct (acquire_block x1 x2 lc) as [c2 lc2]. unfold LabelShift.shp; cbn [fst snd] in *.
    apply (shr_bind rmap rho a b); [apply IH; lia|]. intros c3 lc3 _. rewrite shr_ok, !map_app.
    assert (N0 : forallb nolab x = true) by (destruct bp; [inversion H; reflexivity|apply (nl_store_field _ _ _ _ _ H)]).
    rewrite (rn_nolab _ N0), (rn_nolab _ (nl_store_values _ _ _ _ _ H0)). reflexivity.
Qed.

Lemma load_fields_sh : forall fuel to_load existing bp m lc, (a <= lc)%N ->
  load_fields fuel to_load existing bp m (sh lc) = shr (load_fields fuel to_load existing bp m lc).
Proof.
  induction fuel as [|fuel IH]; intros to_load existing bp m lc L; cbn [load_fields]; [reflexivity|].
  destruct to_load as [|b0 tl]; [reflexivity|].
  apply (shr_bind rmap rho a b); [apply IH; exact L|]. intros c0 lc0 E0. pose proof (load_fields_ok _ _ _ _ _ _ _ _ E0) as [L0 _].
  sb. sb. assert (N2 : forallb nolab x0 = true) by (destruct bp; [inversion H0; reflexivity|apply (nl_load_field _ _ _ _ _ H0)]).
  apply (shr_bind rmap rho a b); [apply load_values_sh; lia|]. intros c3 lc3 _.
  rewrite shr_ok, !map_app, (rn_nolab _ N2). destruct m; reflexivity.
Qed.

Lemma load_sh to_load existing lc : (a <= lc)%N -> r_load to_load existing (sh lc) = shr (r_load to_load existing lc).
Proof.
  intros L. unfold r_load. destruct to_load as [|b0 tl]; [reflexivity|]. sb.
  apply (shr_bind rmap rho a b); [apply load_fields_sh; exact L|]. intros th lc1 E1. pose proof (load_fields_ok _ _ _ _ _ _ _ _ E1) as [L1 _].
  apply (shr_bind rmap rho a b); [apply load_fields_sh; lia|]. intros eb lc2 E2. pose proof (load_fields_ok _ _ _ _ _ _ _ _ E2) as [L2 _].
  match goal with |- context [if_zero_then_else TEMP (rn th) (?p ++ rn eb) (sh lc2)] =>
    change (if_zero_then_else TEMP (rn th) (p ++ rn eb) (sh lc2)) with (if_zero_then_else TEMP (rn th) (rn (p ++ eb)) (sh lc2)) end.
  rewrite ite_sh by lia. destruct (if_zero_then_else TEMP th _ lc2) as [c lc3].
  unfold LabelShift.shp; cbn [fst snd]. rewrite shr_ok, map_app. reflexivity.
Qed.
Lemma store_sh to_store remaining lc : (a <= lc)%N -> r_store to_store remaining (sh lc) = shr (r_store to_store remaining lc).
Proof. intros L. unfold r_store. apply store_fields_sh. exact L. Qed.

Theorem rv_shift_ok : shift_ok rv_backend rmap rho a b.
Proof.
  constructor; cbn [rv_backend b_label b_mark b_jump b_jump_label b_jump_label_fixed b_jcc2 b_jcc1
    b_load_immediate b_load_label b_add_and_jump b_arith b_mov b_print b_erase b_share_n b_store b_load
    b_store_temporary b_restore_temporary]; try reflexivity.
  - intros s x y l. destruct s; reflexivity.
  - intros s x l. destruct s; reflexivity.
  - intros t i. unfold r_add_and_jump. destruct (addi_fits i); reflexivity.
  - intros o t x y. destruct o; reflexivity.
  - intros t lc. apply erase_sh.
  - intros t n lc. apply share_sh.
  - intros x y lc. apply store_sh.
  - intros x y lc. apply load_sh.
Qed.
End S.
