(* C14 / C17: the texts of generated labels.
   The generic code generator prints four kinds of labels:
     definition      <name>_                       (coder.rs)
     memory/branch   lab<k>                        (memory.rs of each back end, statements/ifc.rs)
     table           <Type>_<k>                    (switch.rs, create.rs; <Type> = sanitised type name)
     clause          <Type>_<k>_<Xtor>             (utils.rs code_table, switch.rs, create.rs)
   [gl] is the abstract label, [pr] its text.  [pr] is NOT injective (pr_not_injective): type and
   xtor names may contain `_<digits>` themselves.  It is injective when no sanitised type name
   contains an underscore followed by a digit ([pr_inj_types]), or when no xtor name does and none
   starts with a digit ([pr_inj_xtors]); definition labels are kept apart from table / clause labels
   by the first character (lower-case letter or not), which is the lexical discipline of the source
   language.  Under either guard the texts can be decoded ([decode_pr]), which gives the renaming
   function of C17 ([rho]). *)
From Coq Require Import List NArith String Ascii Bool Lia DecimalString DecimalN DecimalPos.
From SCC Require Import Base.Sexp Sem.LabelGuard Proof.StringFacts.
Import ListNotations.
Local Open Scope string_scope.

Lemma sapp_inj_l (a b c : string) : a ++ b = a ++ c -> b = c.
Proof. induction a; cbn; intros H; [exact H|]. inversion H. auto. Qed.
Lemma sapp_inj_r (a b c : string) : a ++ c = b ++ c -> a = b.
Proof.
  pose proof slen_app as L.
  revert b; induction a as [|ch a IH]; intros [|ch' b] H; cbn in H.
  - reflexivity.
  - exfalso. apply (f_equal String.length) in H. cbn in H. rewrite L in H. lia.
  - exfalso. apply (f_equal String.length) in H. cbn in H. rewrite L in H. lia.
  - inversion H. f_equal. auto.
Qed.

Lemma dig_not_us c : is_dig c = true -> is_us c = false.
Proof. intros D. destruct (is_us c) eqn:U; [|reflexivity]. apply Ascii.eqb_eq in U. subst c. discriminate D. Qed.
Lemma is_us_eq c : is_us c = true -> c = "_"%char.
Proof. apply Ascii.eqb_eq. Qed.

Fixpoint all_dig (s : string) : bool := match s with "" => true | String c r => is_dig c && all_dig r end.
Definition hd_us (s : string) : bool := match s with String c _ => is_us c | "" => false end.
Fixpoint has_us (s : string) : bool := match s with "" => false | String c r => is_us c || has_us r end.
Fixpoint ends_us (s : string) : bool :=
  match s with "" => false | String c "" => is_us c | String _ r => ends_us r end.

Lemma all_dig_no_us s : all_dig s = true -> has_us s = false.
Proof.
  induction s as [|c r IH]; cbn; [reflexivity|]. intros H. apply andb_true_iff in H as [H1 H2].
  rewrite (dig_not_us _ H1), IH by exact H2. reflexivity.
Qed.
Lemma has_us_app a b : has_us (a ++ b) = has_us a || has_us b.
Proof. induction a; cbn; [reflexivity|]. rewrite IHa. now rewrite orb_assoc. Qed.
Lemma no_us_no_usd s : has_us s = false -> has_usd s = false.
Proof.
  induction s as [|c r IH]; cbn; [reflexivity|]. intros H. apply orb_false_iff in H as [H1 H2].
  rewrite H1, IH by exact H2. reflexivity.
Qed.
Lemma hd_dig_app a b : a <> "" -> hd_dig (a ++ b) = hd_dig a.
Proof. destruct a; [congruence|reflexivity]. Qed.
Lemma lower_first_app a b : lower_first a = true -> lower_first (a ++ b) = true.
Proof. destruct a; cbn; [discriminate|auto]. Qed.
Lemma lower_first_app_false a b : a <> "" -> lower_first (a ++ b) = lower_first a.
Proof. destruct a; [congruence|reflexivity]. Qed.
Lemma ends_us_app_us a : ends_us (a ++ "_") = true.
Proof.
  induction a as [|c r IH]; [reflexivity|]. cbn [append ends_us].
  destruct (r ++ "_") eqn:E; [destruct r; discriminate|]. exact IH.
Qed.
Lemma ends_us_app a c r : ends_us (a ++ String c r) = ends_us (String c r).
Proof.
  induction a as [|d a IH]; [reflexivity|]. cbn [append]. change (ends_us (String d (a ++ String c r))) with
    (match a ++ String c r with "" => is_us d | _ => ends_us (a ++ String c r) end).
  destruct (a ++ String c r) eqn:E; [destruct a; discriminate|]. exact IH.
Qed.
Lemma all_dig_ends s : s <> "" -> all_dig s = true -> ends_us s = false.
Proof.
  induction s as [|c r IH]; [congruence|]. intros _ H. cbn in H. apply andb_true_iff in H as [H1 H2].
  destruct r as [|d r]; [cbn; apply dig_not_us; exact H1|]. change (ends_us (String d r) = false). apply IH; [discriminate|exact H2].
Qed.

Notation dec := n_to_string.
Lemma digits_of_uint d : all_dig (NilEmpty.string_of_uint d) = true.
Proof. induction d; cbn; auto. Qed.
Lemma dec_digits k : all_dig (dec k) = true.
Proof.
  unfold n_to_string. destruct (N.to_uint k) eqn:E; cbn [NilZero.string_of_uint]; try reflexivity;
    apply (digits_of_uint (_ u)) || (rewrite <- E; apply digits_of_uint) || idtac.
  all: cbn; apply digits_of_uint.
Qed.
Lemma dec_nonempty k : dec k <> "".
Proof.
  unfold n_to_string. destruct (N.to_uint k); cbn; discriminate.
Qed.
Lemma dec_hd k : hd_dig (dec k) = true.
Proof.
  pose proof (dec_digits k) as H. pose proof (dec_nonempty k) as N.
  destruct (dec k); [congruence|]. cbn in *. apply andb_true_iff in H as [H _]. exact H.
Qed.
Lemma dec_no_us k : has_us (dec k) = false.
Proof. apply all_dig_no_us, dec_digits. Qed.
Lemma n_of_dec k : n_of_string (dec k) = Some k.
Proof.
  unfold n_of_string, n_to_string. rewrite NilZero.usu.
  - now rewrite DecimalN.Unsigned.of_to.
  - destruct k; cbn; [discriminate | apply DecimalPos.Unsigned.to_uint_nonnil].
Qed.
Lemma dec_inj a b : dec a = dec b -> a = b.
Proof. intros H. pose proof (n_of_dec a) as Ha. rewrite H, n_of_dec in Ha. congruence. Qed.

Inductive gl :=
| GDef (name : string)
| GLab (k : N)
| GTL (ty : string) (k : N)
| GCL (ty : string) (k : N) (xtor : string).
Definition pr (g : gl) : string :=
  match g with
  | GDef s => s ++ "_"
  | GLab k => "lab" ++ dec k
  | GTL T k => T ++ "_" ++ dec k
  | GCL T k X => T ++ "_" ++ dec k ++ "_" ++ X
  end.
Definition key (g : gl) : N := match g with GDef _ => 0%N | GLab k | GTL _ k | GCL _ k _ => k end.
Definition is_gen (g : gl) : bool := match g with GDef _ => false | _ => true end.
Definition with_key (f : N -> N) (g : gl) : gl :=
  match g with GDef s => GDef s | GLab k => GLab (f k) | GTL T k => GTL T (f k) | GCL T k X => GCL T (f k) X end.

(* the finding behind the guards: two different abstract labels with one text *)
Lemma pr_not_injective :
  pr (GCL "Aa" 18 "Bx_19_Cy") = pr (GCL "Aa_18_Bx" 19 "Cy") /\ pr (GCL "Aa" 18 "Bx_19") = pr (GTL "Aa_18_Bx" 19).
Proof. split; reflexivity. Qed.

Lemma pr_def_ends s : ends_us (pr (GDef s)) = true.
Proof. apply ends_us_app_us. Qed.
Lemma pr_lab_no_us k : has_us (pr (GLab k)) = false.
Proof. cbn [pr]. rewrite has_us_app, dec_no_us. reflexivity. Qed.
Lemma pr_tl_has_us T k : has_us (pr (GTL T k)) = true.
Proof. cbn [pr]. rewrite has_us_app. cbn. now rewrite orb_true_r. Qed.
Lemma pr_cl_has_us T k X : has_us (pr (GCL T k X)) = true.
Proof. cbn [pr]. rewrite has_us_app. cbn. now rewrite orb_true_r. Qed.
Lemma pr_def_has_us s : has_us (pr (GDef s)) = true.
Proof. cbn [pr]. rewrite has_us_app. cbn. now rewrite orb_true_r. Qed.
Lemma pr_tl_ends T k : ends_us (pr (GTL T k)) = false.
Proof.
  cbn [pr]. pose proof (dec_nonempty k) as N. pose proof (dec_digits k) as D.
  destruct (dec k) as [|c r] eqn:E; [congruence|].
  change (T ++ "_" ++ String c r) with (T ++ String "_" (String c r)).
  replace (T ++ String "_" (String c r)) with ((T ++ "_") ++ String c r) by (rewrite sapp_assoc; reflexivity).
  rewrite ends_us_app. apply all_dig_ends; [discriminate|exact D].
Qed.
Lemma pr_lab_ends k : ends_us (pr (GLab k)) = false.
Proof.
  cbn [pr]. pose proof (dec_nonempty k) as N. pose proof (dec_digits k) as D.
  destruct (dec k) as [|c r] eqn:E; [congruence|]. rewrite ends_us_app. apply all_dig_ends; [discriminate|exact D].
Qed.
Lemma has_usd_app_r a b : has_usd b = true -> has_usd (a ++ b) = true.
Proof. induction a; cbn; intros H; [exact H|]. rewrite IHa by exact H. apply orb_true_r. Qed.
Lemma pr_tl_has_usd T k : has_usd (pr (GTL T k)) = true.
Proof. cbn [pr]. apply has_usd_app_r. cbn. rewrite dec_hd. reflexivity. Qed.
Lemma pr_cl_has_usd T k X : has_usd (pr (GCL T k X)) = true.
Proof.
  cbn [pr]. apply has_usd_app_r. cbn [append has_usd is_us]. rewrite hd_dig_app by apply dec_nonempty. rewrite dec_hd. reflexivity.
Qed.
Lemma pr_gen_lower T : lower_first T = false -> forall k X,
  lower_first (pr (GTL T k)) = false /\ lower_first (pr (GCL T k X)) = false.
Proof. intros H k X. cbn [pr]. destruct T as [|c r]; [split; reflexivity|]. cbn in *. rewrite H. split; reflexivity. Qed.

(* cutting a text at an underscore followed by a digit *)
Fixpoint cut_first (s : string) : option (string * string) :=
  match s with
  | "" => None
  | String c r =>
      if is_us c && hd_dig r then Some ("", r)
      else match cut_first r with Some (p, q) => Some (String c p, q) | None => None end
  end.
Fixpoint cut_last (s : string) : option (string * string) :=
  match s with
  | "" => None
  | String c r =>
      match cut_last r with
      | Some (p, q) => Some (String c p, q)
      | None => if is_us c && hd_dig r then Some ("", r) else None
      end
  end.
Lemma hd_dig_us r : hd_dig (String "_" r) = false.
Proof. reflexivity. Qed.
Lemma cut_first_app T R : has_usd T = false -> hd_dig R = true -> cut_first (T ++ String "_" R) = Some (T, R).
Proof.
  intros HS HR. induction T as [|c r IH]; cbn [append cut_first].
  - change (is_us "_") with true. rewrite HR. reflexivity.
  - cbn [has_usd] in HS. apply orb_false_iff in HS as [H1 H2].
    assert (E : is_us c && hd_dig (r ++ String "_" R) = false).
    { destruct r as [|d r]; [cbn [append]; rewrite hd_dig_us; apply andb_false_r|exact H1]. }
    rewrite E, IH by exact H2. reflexivity.
Qed.
Lemma cut_last_none s : has_usd s = false -> cut_last s = None.
Proof.
  induction s as [|c r IH]; [reflexivity|]. cbn [has_usd cut_last]. intros H. apply orb_false_iff in H as [H1 H2].
  rewrite IH, H1 by exact H2. reflexivity.
Qed.
Lemma cut_last_app T R : has_usd R = false -> hd_dig R = true -> cut_last (T ++ String "_" R) = Some (T, R).
Proof.
  intros HU HR. induction T as [|c r IH]; cbn [append cut_last].
  - rewrite cut_last_none by exact HU. change (is_us "_") with true. rewrite HR. reflexivity.
  - rewrite IH. reflexivity.
Qed.

(* the digits at the front of a text *)
Fixpoint span_dig (s : string) : string * string :=
  match s with
  | "" => ("", "")
  | String c r => if is_dig c then let (a, b) := span_dig r in (String c a, b) else ("", s)
  end.
Lemma span_dig_app D R : all_dig D = true -> hd_dig R = false -> span_dig (D ++ R) = (D, R).
Proof.
  intros HD HR. induction D as [|c r IH]; cbn [append].
  - destruct R as [|c r]; [reflexivity|]. cbn in *. rewrite HR. reflexivity.
  - cbn in HD. apply andb_true_iff in HD as [H1 H2]. cbn [span_dig]. rewrite H1, IH by exact H2. reflexivity.
Qed.

(* the part after the cut: <k> or <k>_<Xtor> *)
Definition decode_tail (T R : string) : option gl :=
  let (K, rest) := span_dig R in
  match n_of_string K with
  | Some k =>
      match rest with
      | "" => Some (GTL T k)
      | String c X => if is_us c then Some (GCL T k X) else None
      end
  | None => None
  end.
Definition decode_with (cut : string -> option (string * string)) (l : string) : option gl :=
  match cut l with Some (T, R) => decode_tail T R | None => None end.
Lemma decode_tail_tl T k : decode_tail T (dec k) = Some (GTL T k).
Proof.
  unfold decode_tail. rewrite <- (sapp_nil_r (dec k)), span_dig_app by (apply dec_digits || reflexivity).
  rewrite n_of_dec. reflexivity.
Qed.
Lemma decode_tail_cl T k X : decode_tail T (dec k ++ "_" ++ X) = Some (GCL T k X).
Proof.
  unfold decode_tail. rewrite span_dig_app by (apply dec_digits || reflexivity).
  rewrite n_of_dec. reflexivity.
Qed.

Lemma usd_tail_gen D X : all_dig D = true -> has_usd X = false -> hd_dig X = false -> has_usd (D ++ String "_" X) = false.
Proof.
  intros D0 H1 H2. induction D as [|c r IH]; cbn [append has_usd].
  - change (is_us "_") with true. rewrite H2, H1. reflexivity.
  - cbn in D0. apply andb_true_iff in D0 as [D1 D2]. rewrite (dig_not_us _ D1), IH by exact D2. reflexivity.
Qed.
Lemma usd_tail k X : xtor_ok X = true -> has_usd (dec k ++ "_" ++ X) = false.
Proof.
  unfold xtor_ok. intros H. apply andb_true_iff in H as [H1 H2]. apply negb_true_iff in H1, H2.
  change (dec k ++ "_" ++ X) with (dec k ++ String "_" X). apply usd_tail_gen; [apply dec_digits|exact H1|exact H2].
Qed.

Lemma decode_first_tl T k : ty_ok T = true -> decode_with cut_first (pr (GTL T k)) = Some (GTL T k).
Proof.
  intros H. apply negb_true_iff in H. unfold decode_with. cbn [pr].
  change (T ++ "_" ++ dec k) with (T ++ String "_" (dec k)). rewrite cut_first_app by (exact H || apply dec_hd).
  apply decode_tail_tl.
Qed.
Lemma decode_first_cl T k X : ty_ok T = true -> decode_with cut_first (pr (GCL T k X)) = Some (GCL T k X).
Proof.
  intros H. apply negb_true_iff in H. unfold decode_with. cbn [pr].
  change (T ++ "_" ++ dec k ++ "_" ++ X) with (T ++ String "_" (dec k ++ "_" ++ X)).
  rewrite cut_first_app; [apply decode_tail_cl|exact H|]. rewrite hd_dig_app by apply dec_nonempty. apply dec_hd.
Qed.
Lemma decode_last_tl T k : decode_with cut_last (pr (GTL T k)) = Some (GTL T k).
Proof.
  unfold decode_with. cbn [pr]. change (T ++ "_" ++ dec k) with (T ++ String "_" (dec k)).
  rewrite cut_last_app; [apply decode_tail_tl| |apply dec_hd]. apply no_us_no_usd, dec_no_us.
Qed.
Lemma decode_last_cl T k X : xtor_ok X = true -> decode_with cut_last (pr (GCL T k X)) = Some (GCL T k X).
Proof.
  intros H. unfold decode_with. cbn [pr].
  change (T ++ "_" ++ dec k ++ "_" ++ X) with (T ++ String "_" (dec k ++ "_" ++ X)).
  rewrite cut_last_app; [apply decode_tail_cl|apply usd_tail; exact H|]. rewrite hd_dig_app by apply dec_nonempty. apply dec_hd.
Qed.

(* which abstract labels a program can generate *)
Section Universe.
Variable okS okX : string -> bool.       (* the sanitised type names / the xtor names of the program *)
Definition in_univ (g : gl) : Prop :=
  match g with
  | GDef s => lower_first s = true
  | GLab _ => True
  | GTL T _ => okS T = true /\ lower_first T = false
  | GCL T _ X => okS T = true /\ lower_first T = false /\ okX X = true
  end.

(* decoding of generated labels, given a cut function that is right on the universe *)
Variable cut : string -> option (string * string).
Hypothesis cut_tl : forall T k, okS T = true -> decode_with cut (pr (GTL T k)) = Some (GTL T k).
Hypothesis cut_cl : forall T k X, okS T = true -> okX X = true -> decode_with cut (pr (GCL T k X)) = Some (GCL T k X).

Definition strip_lab (l : string) : option N :=
  match l with
  | String c1 (String c2 (String c3 r)) =>
      if Ascii.eqb c1 "l" && Ascii.eqb c2 "a" && Ascii.eqb c3 "b" && all_dig r && hd_dig r then n_of_string r else None
  | _ => None
  end.
Lemma strip_lab_pr k : strip_lab (pr (GLab k)) = Some k.
Proof. cbn [pr append strip_lab]. rewrite dec_digits, dec_hd. apply n_of_dec. Qed.
Lemma strip_lab_us l : has_us l = true -> strip_lab l = None.
Proof.
  destruct l as [|c1 [|c2 [|c3 r]]]; try reflexivity. intros H. cbn [strip_lab].
  destruct (Ascii.eqb c1 "l" && Ascii.eqb c2 "a" && Ascii.eqb c3 "b" && all_dig r && hd_dig r) eqn:E; [|reflexivity].
  exfalso. repeat (apply andb_true_iff in E as [E ?]).
  apply Ascii.eqb_eq in E; subst c1.
  match goal with H1 : Ascii.eqb c2 _ = true |- _ => apply Ascii.eqb_eq in H1; subst c2 end.
  match goal with H1 : Ascii.eqb c3 _ = true |- _ => apply Ascii.eqb_eq in H1; subst c3 end.
  match goal with H1 : all_dig r = true |- _ => apply all_dig_no_us in H1; cbn in H; rewrite H1 in H; discriminate end.
Qed.

Definition decode (l : string) : option gl :=
  match strip_lab l with
  | Some k => Some (GLab k)
  | None => if lower_first l then None else decode_with cut l
  end.

Lemma decode_pr g : in_univ g -> is_gen g = true -> decode (pr g) = Some g.
Proof.
  destruct g as [s|k|T k|T k X]; cbn [in_univ is_gen]; intros U G; try discriminate; unfold decode.
  - rewrite strip_lab_pr. reflexivity.
  - destruct U as [U1 U2]. rewrite strip_lab_us by apply pr_tl_has_us.
    rewrite (proj1 (pr_gen_lower T U2 k "")). apply cut_tl. exact U1.
  - destruct U as (U1 & U2 & U3). rewrite strip_lab_us by apply pr_cl_has_us.
    rewrite (proj2 (pr_gen_lower T U2 k X)). apply cut_cl; assumption.
Qed.
Lemma decode_def s : lower_first s = true -> decode (pr (GDef s)) = None.
Proof.
  intros H. unfold decode. rewrite strip_lab_us by apply pr_def_has_us.
  cbn [pr]. rewrite lower_first_app by exact H. reflexivity.
Qed.

(* injectivity of the label texts on the universe *)
Lemma pr_inj g1 g2 : in_univ g1 -> in_univ g2 -> pr g1 = pr g2 -> g1 = g2.
Proof.
  intros U1 U2 E.
  destruct (is_gen g1) eqn:G1, (is_gen g2) eqn:G2.
  - pose proof (decode_pr g1 U1 G1) as D1. rewrite E, (decode_pr g2 U2 G2) in D1. congruence.
  - destruct g2; try discriminate. cbn [in_univ] in U2.
    pose proof (decode_pr g1 U1 G1) as D1. rewrite E, decode_def in D1 by exact U2. discriminate.
  - destruct g1; try discriminate. cbn [in_univ] in U1.
    pose proof (decode_pr g2 U2 G2) as D2. rewrite <- E, decode_def in D2 by exact U1. discriminate.
  - destruct g1, g2; try discriminate. cbn [pr] in E. apply sapp_inj_r in E. congruence.
Qed.

(* the renaming function of C17: apply f to the number of a generated label *)
Definition rho (f : N -> N) (l : string) : string :=
  match decode l with Some g => pr (with_key f g) | None => l end.
Lemma rho_gen f g : in_univ g -> is_gen g = true -> rho f (pr g) = pr (with_key f g).
Proof. intros U G. unfold rho. rewrite decode_pr by assumption. reflexivity. Qed.
Lemma rho_def f s : lower_first s = true -> rho f (s ++ "_") = s ++ "_".
Proof. intros H. unfold rho. change (s ++ "_") with (pr (GDef s)). rewrite (decode_def s H). reflexivity. Qed.
Lemma rho_fixed f l : decode l = None -> rho f l = l.
Proof. intros H. unfold rho. rewrite H. reflexivity. Qed.
End Universe.

Definition decode_types := decode cut_first.
Definition decode_xtors := decode cut_last.
Lemma pr_inj_types g1 g2 :
  in_univ ty_ok (fun _ => true) g1 -> in_univ ty_ok (fun _ => true) g2 -> pr g1 = pr g2 -> g1 = g2.
Proof.
  apply (pr_inj ty_ok (fun _ => true) cut_first).
  - intros T k H. apply decode_first_tl; exact H.
  - intros T k X H _. apply decode_first_cl; exact H.
Qed.
Lemma pr_inj_xtors g1 g2 :
  in_univ (fun _ => true) xtor_ok g1 -> in_univ (fun _ => true) xtor_ok g2 -> pr g1 = pr g2 -> g1 = g2.
Proof.
  apply (pr_inj (fun _ => true) xtor_ok cut_last).
  - intros T k _. apply decode_last_tl.
  - intros T k X _ H. apply decode_last_cl; exact H.
Qed.

(* fixed symbols of the routines are never generated labels nor definition labels *)
Lemma cleanup_not_pr g : pr g <> "cleanup".
Proof.
  intros E. destruct g as [s|k|T k|T k X].
  - pose proof (pr_def_has_us s) as H. rewrite E in H. discriminate.
  - cbn in E. discriminate.
  - pose proof (pr_tl_has_us T k) as H. rewrite E in H. discriminate.
  - pose proof (pr_cl_has_us T k X) as H. rewrite E in H. discriminate.
Qed.
Lemma asm_main_not_pr g : pr g <> "asm_main".
Proof.
  intros E. destruct g as [s|k|T k|T k X].
  - pose proof (pr_def_ends s) as H. rewrite E in H. discriminate.
  - cbn in E. discriminate.
  - pose proof (pr_tl_has_usd T k) as H. rewrite E in H. discriminate.
  - pose proof (pr_cl_has_usd T k X) as H. rewrite E in H. discriminate.
Qed.
