(* C16: the lexer reads every rendering of a safe document back to its token stream.

     render_any_layout_tokens :
       safe_doc d = true -> words_ok d = true -> renders d s -> lex_string s = Some (tokens d)

   [renders d s]: s is obtained from d by replacing every atom by its text, every space / line /
   hardline by ANY non-empty string of blanks, every line_ by ANY (possibly empty) string of blanks,
   independently at each occurrence; nest / group / align are ignored; the comment of the repaired
   `if` printer ([DComment] = text "//" + hardline) by "//", a newline and ANY string of blanks (the
   indentation of the next line).  This contains every layout
   the `pretty` crate can choose at any width and indentation (a line is a space or a newline
   followed by indentation spaces; a line_ is nothing or a newline followed by indentation).

   Second part: [words_ok_print], the words of a printed program are lexable words (the hypothesis [words_ok]
   above holds of [d_prog c p]); [Wd] is that property for one document.
   The file also holds the definitions [blankstr], [word_ok], [atom_ok], [words_ok], [renders_items], [renders]
   that the statements of C16 mention. *)
From Coq Require Import List ZArith NArith String Ascii Bool Lia DecimalString DecimalN DecimalPos DecimalFacts.
From SCC Require Import Base.Sexp Lang.SynUtil Lang.FunSyn Model.Printer Model.Parser Model.FmtClass
  Proof.StringFacts Proof.LexFuel Proof.FmtDefs Proof.FmtWf Proof.FmtGlue Proof.FmtSafe.
Import ListNotations.
Local Open Scope string_scope.

Definition blankstr (w : string) : bool := all_chars is_blank w.
Lemma blankstr_app a b : blankstr (a ++ b) = blankstr a && blankstr b.
Proof. unfold blankstr. induction a; cbn; [reflexivity|]. rewrite IHa. now rewrite andb_assoc. Qed.

Definition hd_ok (P : ascii -> bool) (s : string) : Prop :=
  match s with EmptyString => True | String ch _ => P ch = true end.
Lemma hd_ok_weaken (P Q : ascii -> bool) s : (forall ch, P ch = true -> Q ch = true) -> hd_ok P s -> hd_ok Q s.
Proof. destruct s; cbn; auto. Qed.

(* Inclusions between character classes are decided by trying all 256 characters. *)
Definition forall_bool (f : bool -> bool) : bool := f true && f false.
Definition forall_ascii (P : ascii -> bool) : bool :=
  forall_bool (fun b0 => forall_bool (fun b1 => forall_bool (fun b2 => forall_bool (fun b3 =>
  forall_bool (fun b4 => forall_bool (fun b5 => forall_bool (fun b6 => forall_bool (fun b7 =>
    P (Ascii b0 b1 b2 b3 b4 b5 b6 b7))))))))).
Lemma forall_bool_spec f : forall_bool f = true -> forall b, f b = true.
Proof. unfold forall_bool. intros H b. apply andb_prop in H. destruct b; tauto. Qed.
Lemma forall_ascii_spec P : forall_ascii P = true -> forall ch, P ch = true.
Proof.
  intros H [b0 b1 b2 b3 b4 b5 b6 b7]. unfold forall_ascii in H.
  apply forall_bool_spec with (b := b0) in H. apply forall_bool_spec with (b := b1) in H.
  apply forall_bool_spec with (b := b2) in H. apply forall_bool_spec with (b := b3) in H.
  apply forall_bool_spec with (b := b4) in H. apply forall_bool_spec with (b := b5) in H.
  apply forall_bool_spec with (b := b6) in H. exact (forall_bool_spec _ H b7).
Qed.
Lemma class_incl (P Q : ascii -> bool) :
  forall_ascii (fun ch => implb (P ch) (Q ch)) = true -> forall ch, P ch = true -> Q ch = true.
Proof. intros H ch Hp. apply forall_ascii_spec with (ch := ch) in H. rewrite Hp in H. exact H. Qed.
Lemma class_excl (P Q : ascii -> bool) :
  forall_ascii (fun ch => implb (P ch) (negb (Q ch))) = true -> forall ch, P ch = true -> Q ch = false.
Proof. intros H ch Hp. apply negb_true_iff. exact (class_incl P (fun x => negb (Q x)) H ch Hp). Qed.

Lemma blank_not_wordc ch : is_blank ch = true -> is_wordc ch = false.
Proof. apply (class_excl is_blank is_wordc). vm_compute. reflexivity. Qed.
(* ASCII and not a blank: skip_ws stops *)
Definition solid (ch : ascii) : bool := negb (is_blank ch) && (nat_of_ascii ch <? 128)%nat.
(* A fact about the lexer on a text whose next character [ch] satisfies a hypothesis: in each of the 256 cases
   either both sides evaluate to the same or the hypothesis evaluates to false = true. *)
Ltac every_char_or_absurd ch :=
  let H := fresh "H" in
  destruct ch as [[] [] [] [] [] [] [] []]; intros H; try reflexivity; discriminate H.
Lemma skip_ws_solid ch r : solid ch = true -> skip_ws (String ch r) = String ch r.
Proof. every_char_or_absurd ch. Qed.
Lemma skip_ws_blank w s : blankstr w = true -> skip_ws (w ++ s) = skip_ws s.
Proof.
  unfold blankstr. induction w as [|ch w IH]; cbn [all_chars append]; [reflexivity|].
  intros H. apply andb_prop in H. destruct H as [Hc Hw]. cbn [skip_ws]. rewrite Hc. now apply IH.
Qed.
Lemma skip_ws_blank_nil w : blankstr w = true -> skip_ws w = "".
Proof. intros H. rewrite <- (sapp_nil_r w). now rewrite skip_ws_blank. Qed.

Lemma take_while_app p a s : all_chars p a = true -> hd_ok (fun ch => negb (p ch)) s -> take_while p (a ++ s) = a.
Proof.
  induction a as [|ch a IH]; cbn [all_chars append].
  - intros _ H. destruct s as [|ch s]; [reflexivity|]. cbn in *. apply negb_true_iff in H. now rewrite H.
  - intros H Hs. apply andb_prop in H. destruct H as [Hc Ha]. cbn [take_while]. rewrite Hc. now rewrite IH.
Qed.
Lemma skip_while_app p a s : all_chars p a = true -> hd_ok (fun ch => negb (p ch)) s -> skip_while p (a ++ s) = s.
Proof.
  induction a as [|ch a IH]; cbn [all_chars append].
  - intros _ H. destruct s as [|ch s]; [reflexivity|]. cbn in *. apply negb_true_iff in H. now rewrite H.
  - intros H Hs. apply andb_prop in H. destruct H as [Hc Ha]. cbn [skip_while]. rewrite Hc. now rewrite IH.
Qed.

Definition word_ok (s : string) : bool :=
  match s with
  | String ch r => (is_lower ch || is_upper ch) && all_chars is_wordc r
  | EmptyString => false
  end.
Definition atom_ok (a : atom) : bool := match a with AWord s => word_ok s | _ => true end.
Definition words_ok (d : doc) : bool := forallb atom_ok (atoms d).

Lemma letter_solid ch : is_lower ch || is_upper ch = true -> solid ch = true.
Proof. apply (class_incl (fun ch => is_lower ch || is_upper ch) solid). vm_compute. reflexivity. Qed.
Lemma letter_wordc ch : is_lower ch || is_upper ch = true -> is_wordc ch = true.
Proof. unfold is_wordc. intros ->. reflexivity. Qed.
Lemma digit_solid ch : is_digit ch = true -> solid ch = true.
Proof. apply (class_incl is_digit solid). vm_compute. reflexivity. Qed.
Lemma digit_wordc ch : is_digit ch = true -> is_wordc ch = true.
Proof. unfold is_wordc. intros ->. now rewrite !orb_true_r. Qed.
Lemma digit_not_letter ch : is_digit ch = true -> is_lower ch || is_upper ch = false.
Proof. apply (class_excl is_digit (fun ch => is_lower ch || is_upper ch)). vm_compute. reflexivity. Qed.

Lemma digits_of_uint d : all_chars is_digit (NilEmpty.string_of_uint d) = true.
Proof. induction d; cbn; auto. Qed.
Lemma n_to_string_0 : n_to_string 0 = "0".
Proof. reflexivity. Qed.
Lemma nzhead_cases d : Decimal.nzhead d = Decimal.Nil \/
  match Decimal.nzhead d with Decimal.Nil | Decimal.D0 _ => False | _ => True end.
Proof. induction d; cbn; auto. Qed.
Lemma to_uint_pos_shape p :
  match N.to_uint (Npos p) with Decimal.Nil | Decimal.D0 _ => False | _ => True end.
Proof.
  pose proof (DecimalN.Unsigned.of_to (Npos p)) as Hof.
  pose proof (DecimalN.Unsigned.to_of (N.to_uint (Npos p))) as Hto. rewrite Hof in Hto.
  unfold Decimal.unorm in Hto. destruct (nzhead_cases (N.to_uint (Npos p))) as [E|E].
  - rewrite E in Hto. rewrite Hto in Hof. cbn in Hof. discriminate.
  - destruct (Decimal.nzhead (N.to_uint (Npos p))) eqn:E2; try contradiction; rewrite Hto; exact I.
Qed.
Definition nonzero_digit (ch : ascii) : bool := is_digit ch && negb (Ascii.eqb ch "0").
Lemma n_to_string_pos p : exists ch r, n_to_string (Npos p) = String ch r /\ nonzero_digit ch = true /\ all_chars is_digit r = true.
Proof.
  unfold n_to_string. pose proof (to_uint_pos_shape p) as H.
  destruct (N.to_uint (Npos p)) as [|d|d|d|d|d|d|d|d|d|d] eqn:E; try contradiction;
    cbn [NilZero.string_of_uint NilEmpty.string_of_uint]; eexists _, _; (split; [reflexivity|]); (split; [reflexivity|]);
    apply digits_of_uint.
Qed.
Lemma n_of_to_string n : n_of_string (n_to_string n) = Some n.
Proof.
  unfold n_of_string, n_to_string.
  destruct n as [|p].
  - reflexivity.
  - rewrite NilZero.usu.
    + now rewrite DecimalN.Unsigned.of_to.
    + pose proof (to_uint_pos_shape p). intros E. rewrite E in H. exact H.
Qed.

(* first character of a symbol text *)
Definition symc (ch : ascii) : bool :=
  existsb (Ascii.eqb ch) ["("; ")"; "{"; "}"; "["; "]"; ";"; ","; ":"; "."; "="; "!"; "<"; ">"; "+"; "*"; "-"; "/"; "%"]%char.
Lemma sym_text_head y : exists ch r, sym_text y = String ch r /\ symc ch = true.
Proof. destruct y as [| | | | | | | | | | | |[]| | | | |]; eexists _, _; split; reflexivity. Qed.
Lemma symc_solid ch : symc ch = true -> solid ch = true.
Proof. apply (class_incl symc solid). vm_compute. reflexivity. Qed.
Lemma symc_not_wordc ch : symc ch = true -> is_wordc ch = false.
Proof. apply (class_excl symc is_wordc). vm_compute. reflexivity. Qed.

Lemma atom_text_head a : atom_ok a = true -> exists ch r, atom_text a = String ch r /\ solid ch = true.
Proof.
  destruct a as [s|n|y|]; cbn [atom_ok atom_text].
  - destruct s as [|ch r]; [discriminate|]. cbn. intros H. apply andb_prop in H. destruct H as [H _].
    eexists _, _; split; [reflexivity|]. now apply letter_solid.
  - intros _. destruct n as [|p].
    + eexists _, _; split; reflexivity.
    + destruct (n_to_string_pos p) as (ch & r & E & Hc & _). rewrite E. eexists _, _; split; [reflexivity|].
      apply digit_solid. unfold nonzero_digit in Hc. apply andb_prop in Hc. tauto.
  - intros _. destruct (sym_text_head y) as (ch & r & E & Hc). rewrite E. eexists _, _; split; [reflexivity|].
    now apply symc_solid.
  - intros _. eexists _, _; split; reflexivity.
Qed.

Inductive renders_items : list item -> string -> Prop :=
| RNil : renders_items [] ""
| RAtom a l s : renders_items l s -> renders_items (IAtom a :: l) (atom_text a ++ s)
| RSome l w s : blankstr w = true -> w <> "" -> renders_items l s -> renders_items (ISep KSome :: l) (w ++ s)
| RMaybe l w s : blankstr w = true -> renders_items l s -> renders_items (ISep KMaybe :: l) (w ++ s).
Definition renders (d : doc) (s : string) : Prop := renders_items (flat d) s.

(* Chunked form of a rendering: blanks, atom, blanks, atom, .., trailing blanks.  [chain_ok last ps]: the blanks are
   blanks, and between two atoms that would lex differently when juxtaposed ([sticky]) there is at least one
   ([checkw], with [last] the atom in front).  [chunks_of_render] reads the chunks off a rendering; [last cur w0] are
   the state of the safety scan and the blanks collected since the last atom. *)
Fixpoint spaced (ps : list (string * atom)) (tr : string) : string :=
  match ps with [] => tr | (w, a) :: r => w ++ atom_text a ++ spaced r tr end.
Definition checkw (last : option atom) (w : string) (b : atom) : Prop :=
  match last with None => True | Some a => cns_clash a b = false /\ (sticky a b = true -> w <> "") end.
Fixpoint chain_ok (last : option atom) (ps : list (string * atom)) : Prop :=
  match ps with
  | [] => True
  | (w, b) :: r => blankstr w = true /\ checkw last w b /\ chain_ok (Some b) r
  end.

Lemma chunks_of_render l s : renders_items l s ->
  forall last cur w0, blankstr w0 = true -> (blank cur = true -> w0 <> "") -> safe_from last cur l = true ->
  exists ps tr, w0 ++ s = spaced ps tr /\ blankstr tr = true /\ map snd ps = atoms_of l /\ chain_ok last ps.
Proof.
  induction 1 as [|a l s Hr IH|l w s Hw Hne Hr IH|l w s Hw Hr IH]; intros last cur w0 Hw0 Hcur Hsafe.
  - exists [], w0. rewrite sapp_nil_r. repeat split; auto.
  - rewrite safe_step in Hsafe. apply andb_prop in Hsafe. destruct Hsafe as [Hck Hsafe].
    destruct (IH (Some a) None "" eq_refl (fun H => ltac:(discriminate H)) Hsafe) as (ps & tr & E & Htr & Hm & Hc).
    exists ((w0, a) :: ps), tr. cbn [spaced map snd atoms_of chain_ok]. cbn [append] in E. rewrite E.
    repeat split; auto; try (now f_equal).
    destruct last as [x|]; [|exact I]. unfold sep_check in Hck. apply andb_prop in Hck. destruct Hck as [H1 H2].
    apply negb_true_iff in H1. split; [assumption|]. intros Hst. rewrite Hst in H2. cbn in H2. now apply Hcur.
  - rewrite safe_sep in Hsafe.
    destruct (IH last (sep_join cur KSome) (w0 ++ w)) as (ps & tr & E & Htr & Hm & Hc); auto.
    + rewrite blankstr_app. now rewrite Hw0, Hw.
    + intros _ E. destruct w0; [cbn in E; contradiction | discriminate].
    + exists ps, tr. rewrite <- sapp_assoc. auto.
  - rewrite safe_sep in Hsafe.
    destruct (IH last (sep_join cur KMaybe) (w0 ++ w)) as (ps & tr & E & Htr & Hm & Hc); auto.
    + rewrite blankstr_app. now rewrite Hw0, Hw.
    + intros Hb E. apply Hcur; [destruct cur as [[]|]; try discriminate; reflexivity|].
      destruct w0; [reflexivity|discriminate].
    + exists ps, tr. rewrite <- sapp_assoc. auto.
Qed.

(* What follows an atom in a chunked text: nothing, a blank, or the text of an atom that does not stick to it. *)
Lemma hd_cases a r tr : chain_ok (Some a) r -> blankstr tr = true ->
  spaced r tr = "" \/ (exists ch rest, spaced r tr = String ch rest /\ is_blank ch = true) \/
  (exists b r', r = ("", b) :: r' /\ sticky a b = false /\ cns_clash a b = false).
Proof.
  intros Hc Htr. destruct r as [|[w b] r'].
  - cbn [spaced]. destruct tr as [|ch rest]; [now left|]. right; left. cbn in Htr. apply andb_prop in Htr.
    eexists _, _; split; [reflexivity|tauto].
  - cbn [chain_ok] in Hc. destruct Hc as (Hw & (Hcl & Hst) & _). destruct w as [|ch w'].
    + right; right. exists b, r'. repeat split; auto. destruct (sticky a b); [exfalso; now apply Hst|reflexivity].
    + right; left. cbn in Hw. apply andb_prop in Hw. cbn [spaced append]. eexists _, _; split; [reflexivity|tauto].
Qed.
Lemma hd_from a r tr (Q : ascii -> bool) :
  chain_ok (Some a) r -> blankstr tr = true -> forallb atom_ok (map snd r) = true ->
  (forall ch, is_blank ch = true -> Q ch = true) ->
  (forall b, sticky a b = false -> cns_clash a b = false -> atom_ok b = true -> hd_ok Q (atom_text b)) ->
  hd_ok Q (spaced r tr).
Proof.
  intros Hc Htr Hok HQ Hb. destruct (hd_cases a r tr Hc Htr) as [E|[(ch & rest & E & Hbl)|(b & r' & E & Hs & Hcl)]].
  - now rewrite E.
  - rewrite E. cbn. now apply HQ.
  - subst r. cbn [map snd forallb] in Hok. apply andb_prop in Hok. destruct Hok as [Hbok _].
    specialize (Hb b Hs Hcl Hbok). cbn [spaced append]. destruct (atom_text_head b Hbok) as (ch & rr & E & _).
    rewrite E in *. exact Hb.
Qed.
Definition opc (ch : ascii) : bool := existsb (Ascii.eqb ch) ["="; ">"; "<"; "!"; "/"]%char.
Lemma blank_not_opc ch : is_blank ch = true -> negb (opc ch) = true.
Proof. apply (class_incl is_blank (fun ch => negb (opc ch))). vm_compute. reflexivity. Qed.
Lemma wordc_not_opc ch : is_wordc ch = true -> negb (opc ch) = true.
Proof. apply (class_incl is_wordc (fun ch => negb (opc ch))). vm_compute. reflexivity. Qed.
Lemma hd_after_wordy a r tr :
  wordy a = true -> chain_ok (Some a) r -> blankstr tr = true -> forallb atom_ok (map snd r) = true ->
  hd_ok (fun ch => negb (is_wordc ch)) (spaced r tr).
Proof.
  intros Hw Hc Htr Hok. apply (hd_from a r tr); auto.
  - intros ch H. now rewrite blank_not_wordc.
  - intros b Hs _ _. unfold sticky in Hs. rewrite Hw in Hs. cbn [andb] in Hs. apply orb_false_elim in Hs.
    destruct Hs as [Hs _]. destruct b as [s|n|y|]; try discriminate; [|reflexivity].
    cbn [atom_text]. destruct (sym_text_head y) as (ch & rr & E & Hc'). rewrite E. cbn. now rewrite symc_not_wordc.
Qed.
Lemma hd_after_op a r tr :
  op_end a = true -> chain_ok (Some a) r -> blankstr tr = true -> forallb atom_ok (map snd r) = true ->
  hd_ok (fun ch => negb (opc ch)) (spaced r tr).
Proof.
  intros Hw Hc Htr Hok. apply (hd_from a r tr); auto.
  - apply blank_not_opc.
  - intros b Hs _ Hbok. unfold sticky in Hs. rewrite Hw in Hs. cbn [andb] in Hs. apply orb_false_elim in Hs.
    destruct Hs as [_ Hs]. destruct b as [s|n|y|]; cbn [atom_text].
    + destruct s as [|ch rr]; [discriminate|]. cbn in Hbok. apply andb_prop in Hbok. destruct Hbok as [H _].
      cbn. apply wordc_not_opc. now apply letter_wordc.
    + destruct n as [|p]; [reflexivity|]. destruct (n_to_string_pos p) as (ch & rr & E & Hd & _). rewrite E. cbn.
      apply wordc_not_opc, digit_wordc. unfold nonzero_digit in Hd. apply andb_prop in Hd. tauto.
    + destruct y as [| | | | | | | | | | | |[]| | | | |]; try discriminate; reflexivity.
    + discriminate Hs.
Qed.

Lemma scan_word s R : word_ok s = true -> hd_ok (fun ch => negb (is_wordc ch)) R -> scan (s ++ R) = LTok (word_token s) R.
Proof.
  intros Hs HR. destruct s as [|ch r]; [discriminate|]. cbn in Hs. apply andb_prop in Hs. destruct Hs as [Hl Hr].
  assert (Hall : all_chars is_wordc (String ch r) = true) by (cbn; now rewrite letter_wordc).
  change (String ch r ++ R) with (String ch (r ++ R)). cbn [scan]. rewrite Hl.
  change (String ch (r ++ R)) with (String ch r ++ R).
  now rewrite take_while_app, skip_while_app.
Qed.
Lemma scan_num_pos p R : hd_ok (fun ch => negb (is_wordc ch)) R ->
  scan (n_to_string (Npos p) ++ R) = LTok (TNum (Npos p)) R.
Proof.
  intros HR. pose proof (n_of_to_string (Npos p)) as Hof.
  destruct (n_to_string_pos p) as (ch & r & E & Hd & Hr). rewrite E in *.
  unfold nonzero_digit in Hd. apply andb_prop in Hd. destruct Hd as [Hd Hnz]. apply negb_true_iff in Hnz.
  assert (Hall : all_chars is_digit (String ch r) = true) by (cbn; now rewrite Hd).
  assert (HR' : hd_ok (fun ch => negb (is_digit ch)) R).
  { eapply hd_ok_weaken; [|exact HR]. intros x Hx. cbn in Hx. apply negb_true_iff in Hx. apply negb_true_iff.
    destruct (is_digit x) eqn:Ex; [|reflexivity]. apply digit_wordc in Ex. congruence. }
  change (String ch r ++ R) with (String ch (r ++ R)). cbn [scan].
  rewrite (digit_not_letter ch Hd), Hnz, Hd.
  change (String ch (r ++ R)) with (String ch r ++ R).
  rewrite take_while_app, skip_while_app by assumption. now rewrite Hof.
Qed.
Lemma scan_zero R : scan ("0" ++ R) = match zero_cmp (skip_ws R) with
                                      | Some (o, r') => LTok (TZCmp o) r'
                                      | None => LTok (TNum 0) R
                                      end.
Proof. reflexivity. Qed.
Definition plain1 (y : sym) : bool :=
  match y with
  | SLPar | SRPar | SLBrace | SRBrace | SLBrack | SRBrack | SSemi | SComma | SDot | SPlus | SStar | SMinus | SPercent => true
  | _ => false
  end.
Lemma scan_plain1 y R : plain1 y = true -> scan (sym_text y ++ R) = LTok (TSym y) R.
Proof. destruct y; try discriminate; reflexivity. Qed.
Lemma scan_arrow R : scan ("=>" ++ R) = LTok (TSym SArrow) R.
Proof. reflexivity. Qed.
(* the operators whose terminal depends on the next character: first the dispatch on the operator itself .. *)
Lemma scan_slash_next R :
  scan ("/" ++ R) = match R with String "/" r1 => LSkip (comment_rest r1) | _ => LTok (TSym SSlash) R end.
Proof. reflexivity. Qed.
Lemma scan_assign_next R :
  scan ("=" ++ R) = match R with
                    | String "=" r1 => after_cmp FEq r1
                    | String ">" r1 => LTok (TSym SArrow) r1
                    | _ => LTok (TSym SAssign) R
                    end.
Proof. reflexivity. Qed.
Lemma scan_lt_next R : scan ("<" ++ R) = match R with String "=" r1 => after_cmp FLe r1 | _ => after_cmp FLt R end.
Proof. reflexivity. Qed.
Lemma scan_gt_next R : scan (">" ++ R) = match R with String "=" r1 => after_cmp FGe r1 | _ => after_cmp FGt R end.
Proof. reflexivity. Qed.
(* .. then the next character, which is none of = > < ! / *)
Lemma scan_slash R : hd_ok (fun ch => negb (opc ch)) R -> scan ("/" ++ R) = LTok (TSym SSlash) R.
Proof. rewrite scan_slash_next. destruct R as [|ch R']; [reflexivity|]. cbn [hd_ok]. every_char_or_absurd ch. Qed.
Lemma scan_assign R : hd_ok (fun ch => negb (opc ch)) R -> scan ("=" ++ R) = LTok (TSym SAssign) R.
Proof. rewrite scan_assign_next. destruct R as [|ch R']; [reflexivity|]. cbn [hd_ok]. every_char_or_absurd ch. Qed.
Lemma scan_cmp c R : hd_ok (fun ch => negb (opc ch)) R -> scan (cmp_text c ++ R) = after_cmp c R.
Proof.
  destruct c; try reflexivity; cbn [cmp_text]; [rewrite scan_lt_next | rewrite scan_gt_next];
    (destruct R as [|ch R']; [reflexivity|]); cbn [hd_ok]; every_char_or_absurd ch.
Qed.
(* tested character by character, so that a first character other than "c" decides *)
Definition starts_cns (s : string) : bool :=
  match s with
  | String a s1 =>
      Ascii.eqb a "c" && match s1 with
                         | String b s2 => Ascii.eqb b "n" && match s2 with String c _ => Ascii.eqb c "s" | _ => false end
                         | _ => false
                         end
  | _ => false
  end.
Definition drop3 (s : string) : string := match s with String _ (String _ (String _ r)) => r | _ => "" end.
Lemma scan_colon R :
  scan (":" ++ R) = if starts_cns (skip_ws R) then LTok TColonCns (drop3 (skip_ws R)) else LTok (TSym SColon) R.
Proof.
  change (scan (":" ++ R)) with
    (match skip_ws R with
     | String "c" (String "n" (String "s" r1)) => LTok TColonCns r1
     | _ => LTok (TSym SColon) R
     end).
  destruct (skip_ws R) as [|a s1]; [reflexivity|]. destruct a as [[] [] [] [] [] [] [] []]; try reflexivity.
  destruct s1 as [|b s2]; [reflexivity|]. destruct b as [[] [] [] [] [] [] [] []]; try reflexivity.
  destruct s2 as [|c r]; [reflexivity|]. destruct c as [[] [] [] [] [] [] [] []]; reflexivity.
Qed.
Lemma zero_cmp_none ch r : negb (opc ch) = true -> zero_cmp (String ch r) = None.
Proof. every_char_or_absurd ch. Qed.
Lemma zero_cmp_lt_next R : zero_cmp ("<" ++ R) = match R with String "=" r => Some (FLe, r) | _ => Some (FLt, R) end.
Proof. reflexivity. Qed.
Lemma zero_cmp_gt_next R : zero_cmp (">" ++ R) = match R with String "=" r => Some (FGe, r) | _ => Some (FGt, R) end.
Proof. reflexivity. Qed.
Lemma zero_cmp_assign_next R : zero_cmp ("=" ++ R) = match R with String "=" r => Some (FEq, r) | _ => None end.
Proof. reflexivity. Qed.
Lemma zero_cmp_cmp c R : hd_ok (fun ch => negb (opc ch)) R -> zero_cmp (cmp_text c ++ R) = Some (c, R).
Proof.
  destruct c; try reflexivity; cbn [cmp_text]; [rewrite zero_cmp_lt_next | rewrite zero_cmp_gt_next];
    (destruct R as [|ch R']; [reflexivity|]); cbn [hd_ok]; every_char_or_absurd ch.
Qed.
Lemma zero_cmp_assign R : hd_ok (fun ch => negb (opc ch)) R -> zero_cmp ("=" ++ R) = None.
Proof. rewrite zero_cmp_assign_next. destruct R as [|ch R']; [reflexivity|]. cbn [hd_ok]. every_char_or_absurd ch. Qed.

Lemma lex_S n s :
  lex (S n) s = match skip_ws s with
                | EmptyString => Some []
                | s' => match scan s' with
                        | LTok t r => match lex n r with Some l => Some (t :: l) | None => None end
                        | LSkip r => lex n r
                        | LErr => None
                        end
                end.
Proof. reflexivity. Qed.
Lemma lex_step n s s' t r l :
  skip_ws s = s' -> s' <> "" -> scan s' = LTok t r -> lex n r = Some l -> lex (S n) s = Some (t :: l).
Proof. intros E1 Hne E2 E3. rewrite lex_S, E1. destruct s'; [congruence|]. now rewrite E2, E3. Qed.
Lemma skip_spaced_cons w a r tr : blankstr w = true -> atom_ok a = true ->
  skip_ws (spaced ((w, a) :: r) tr) = atom_text a ++ spaced r tr.
Proof.
  intros Hw Ha. cbn [spaced]. rewrite skip_ws_blank by assumption.
  destruct (atom_text_head a Ha) as (ch & rr & E & Hs). rewrite E. cbn [append]. now apply skip_ws_solid.
Qed.
Lemma text_nonempty a R : atom_ok a = true -> atom_text a ++ R <> "".
Proof. intros Ha. destruct (atom_text_head a Ha) as (ch & rr & E & _). rewrite E. discriminate. Qed.
Lemma spaced_len_cons w a r tr :
  atom_ok a = true -> (String.length (spaced r tr) < String.length (spaced ((w, a) :: r) tr))%nat.
Proof.
  intros Ha. cbn [spaced]. rewrite !slen_app. destruct (atom_text_head a Ha) as (ch & rr & E & _). rewrite E. cbn. lia.
Qed.

Lemma letter_not_0 ch : is_lower ch || is_upper ch = true -> Ascii.eqb ch "0" = false.
Proof. apply (class_excl (fun ch => is_lower ch || is_upper ch) (fun ch => Ascii.eqb ch "0")). vm_compute. reflexivity. Qed.
Lemma symc_not_0 ch : symc ch = true -> Ascii.eqb ch "0" = false.
Proof. apply (class_excl symc (fun ch => Ascii.eqb ch "0")). vm_compute. reflexivity. Qed.
Lemma digit_not_c ch : is_digit ch = true -> Ascii.eqb ch "c" = false.
Proof. apply (class_excl is_digit (fun ch => Ascii.eqb ch "c")). vm_compute. reflexivity. Qed.
Lemma symc_not_c ch : symc ch = true -> Ascii.eqb ch "c" = false.
Proof. apply (class_excl symc (fun ch => Ascii.eqb ch "c")). vm_compute. reflexivity. Qed.
Lemma is0_text b R : atom_ok b = true -> b <> ANum 0 -> is0 (atom_text b ++ R) = false.
Proof.
  intros Hb Hne. destruct b as [s|n|y|]; cbn [atom_text].
  - destruct s as [|ch r]; [discriminate|]. cbn in Hb. apply andb_prop in Hb. destruct Hb as [H _]. cbn. now apply letter_not_0.
  - destruct n as [|p]; [congruence|]. destruct (n_to_string_pos p) as (ch & r & E & Hd & _). rewrite E. cbn.
    unfold nonzero_digit in Hd. apply andb_prop in Hd. destruct Hd as [_ Hd]. now apply negb_true_iff.
  - destruct (sym_text_head y) as (ch & r & E & Hc). rewrite E. cbn. now apply symc_not_0.
  - reflexivity.
Qed.
Lemma starts_cns_cases s : starts_cns s = true -> exists r, s = "cns" ++ r.
Proof.
  intros H. destruct s as [|a [|b [|c r]]]; cbn [starts_cns] in H; rewrite ?andb_false_r in H; try discriminate H.
  rewrite !andb_true_iff in H. destruct H as (Ha & Hb & Hc). apply Ascii.eqb_eq in Ha, Hb, Hc. subst. now exists r.
Qed.
Lemma starts_cns_word s R : word_ok s = true -> s <> "cns" -> prefix_cns s = false ->
  hd_ok (fun ch => negb (is_wordc ch)) R -> starts_cns (s ++ R) = false.
Proof.
  intros Hw Hne Hp HR. destruct (starts_cns (s ++ R)) eqn:E; [|reflexivity]. exfalso.
  apply starts_cns_cases in E. destruct E as (r & E).
  destruct s as [|a [|b [|c [|d s']]]]; cbn in E.
  - discriminate Hw.
  - destruct R as [|x R']; [discriminate|]. injection E as _ Hx _. subst x. cbn in HR. discriminate.
  - destruct R as [|x R']; [discriminate|]. injection E as _ _ Hx _. subst x. cbn in HR. discriminate.
  - injection E as -> -> -> _. congruence.
  - injection E as -> -> -> _. cbn in Hp. discriminate.
Qed.
Lemma starts_cns_other b R : atom_ok b = true -> (forall s, b <> AWord s) -> starts_cns (atom_text b ++ R) = false.
Proof.
  intros Hb Hne. destruct b as [s|n|y|]; [exfalso; now apply (Hne s)| | |reflexivity]; cbn [atom_text].
  - destruct n as [|p]; [reflexivity|].
    destruct (n_to_string_pos p) as (ch & r & E & Hd & _). rewrite E.
    unfold nonzero_digit in Hd. apply andb_prop in Hd. destruct Hd as [Hd _].
    cbn [append starts_cns]. now rewrite digit_not_c.
  - destruct (sym_text_head y) as (ch & r & E & Hc). rewrite E.
    cbn [append starts_cns]. now rewrite symc_not_c.
Qed.

(* the comment atom: "//" up to and including its newline is skipped, together with further newlines *)
Lemma nl_blank ch : is_nl ch = true -> is_blank ch = true.
Proof. apply (class_incl is_nl is_blank). vm_compute. reflexivity. Qed.
Lemma skip_ws_skip_nl s : skip_ws (skip_while is_nl s) = skip_ws s.
Proof.
  induction s as [|ch s IH]; [reflexivity|]. cbn [skip_while]. destruct (is_nl ch) eqn:E; [|reflexivity].
  rewrite IH. cbn [skip_ws]. now rewrite (nl_blank ch E).
Qed.
Lemma lex_skip_nl n s : lex n (skip_while is_nl s) = lex n s.
Proof. destruct n; [reflexivity|]. rewrite !lex_S. now rewrite skip_ws_skip_nl. Qed.
Lemma scan_comment R : scan (comment_text ++ R) = LSkip (skip_while is_nl R).
Proof. reflexivity. Qed.
Lemma lex_step_skip n s s' r l :
  skip_ws s = s' -> s' <> "" -> scan s' = LSkip r -> lex n r = Some l -> lex (S n) s = Some l.
Proof. intros E1 Hne E2 E3. rewrite lex_S, E1. destruct s'; [congruence|]. now rewrite E2. Qed.

Lemma lex_chunks : forall m ps, List.length ps <= m -> forall last tr n,
  chain_ok last ps -> blankstr tr = true -> forallb atom_ok (map snd ps) = true ->
  (String.length (spaced ps tr) < n)%nat ->
  lex n (spaced ps tr) = Some (glue (map snd ps)).
Proof.
  induction m as [|m IH]; intros ps Hm last tr n Hc Htr Hok Hn.
  - destruct ps; [|cbn in Hm; lia]. destruct n; [lia|]. rewrite lex_S. cbn [spaced]. now rewrite skip_ws_blank_nil.
  - destruct ps as [|[w a] r].
    { destruct n; [lia|]. rewrite lex_S. cbn [spaced]. now rewrite skip_ws_blank_nil. }
    destruct n as [|n]; [lia|]. cbn [List.length] in Hm.
    cbn [chain_ok] in Hc. destruct Hc as (Hw & _ & Hc).
    cbn [map snd forallb] in Hok. apply andb_prop in Hok. destruct Hok as [Ha Hok].
    pose proof (spaced_len_cons w a r tr Ha) as Hlen.
    assert (IHr : lex n (spaced r tr) = Some (glue (map snd r))).
    { apply (IH r ltac:(lia) (Some a)); auto. lia. }
    pose proof (skip_spaced_cons w a r tr Hw Ha) as Hskip.
    pose proof (text_nonempty a (spaced r tr) Ha) as Hne.
    cbn [map snd].
    (* what the lexer sees after skipping the blanks in front of the next atom *)
    assert (Hnext : forall w' b r2, r = (w', b) :: r2 ->
              blankstr w' = true /\ cns_clash a b = false /\ chain_ok (Some b) r2 /\ atom_ok b = true /\
              forallb atom_ok (map snd r2) = true /\
              skip_ws (spaced r tr) = atom_text b ++ spaced r2 tr /\
              lex n (spaced r2 tr) = Some (glue (map snd r2))).
    { intros w' b r2 ->. cbn [chain_ok] in Hc. destruct Hc as (Hw' & (Hcl & _) & Hc2).
      cbn [map snd forallb] in Hok. apply andb_prop in Hok. destruct Hok as [Hb Hok2].
      repeat split; auto.
      - now apply skip_spaced_cons.
      - apply (IH r2 ltac:(cbn in Hm; lia) (Some b)); auto.
        pose proof (spaced_len_cons w' b r2 tr Hb). lia. }
    (* the common case: one token, and the lexer goes on behind the atom *)
    assert (Step : forall t, scan (atom_text a ++ spaced r tr) = LTok t (spaced r tr) ->
                             lex (S n) (spaced ((w, a) :: r) tr) = Some (t :: glue (map snd r)))
      by (intros t Hs; exact (lex_step n _ _ t _ _ Hskip Hne Hs IHr)).
    destruct a as [s|k|y|].
    + (* word *)
      apply Step.
      apply scan_word; [exact Ha|]. now apply (hd_after_wordy (AWord s)).
    + destruct k as [|p].
      * (* the literal 0: may be the left half of r"0\s*cmp" *)
        change (atom_text (ANum 0)) with "0" in *.
        destruct r as [|[w' b] r2].
        { apply Step.
          rewrite scan_zero. cbn [spaced]. now rewrite skip_ws_blank_nil. }
        destruct (Hnext w' b r2 eq_refl) as (Hw' & Hcl & Hc2 & Hb & Hok2 & Hsk & IH2).
        assert (Hnone : (forall c0, b <> ASym (SCmp c0)) -> zero_cmp (atom_text b ++ spaced r2 tr) = None ->
                        lex (S n) (spaced ((w, ANum 0) :: (w', b) :: r2) tr) = Some (glue (ANum 0 :: map snd ((w', b) :: r2)))).
        { intros Hb' Hz. rewrite glue_num0 by (cbn [map snd nocmp]; destruct b as [| |[]|]; try reflexivity; exfalso; now apply (Hb' c)).
          apply Step.
          rewrite scan_zero, Hsk, Hz. reflexivity. }
        destruct b as [s1|k1|y1|]; [| | |apply Hnone; [discriminate | reflexivity]].
        -- apply Hnone; [discriminate|]. destruct s1 as [|ch rr]; [discriminate|]. cbn in Hb. apply andb_prop in Hb.
           destruct Hb as [Hl _]. cbn [atom_text append]. apply zero_cmp_none, wordc_not_opc. now apply letter_wordc.
        -- apply Hnone; [discriminate|]. destruct k1 as [|p1]; [reflexivity|].
           destruct (n_to_string_pos p1) as (ch & rr & E & Hd & _). cbn [atom_text]. rewrite E. cbn [append].
           apply zero_cmp_none, wordc_not_opc, digit_wordc. unfold nonzero_digit in Hd. apply andb_prop in Hd. tauto.
        -- destruct y1 as [| | | | | | | | | | | |c0| | | | |];
             try (apply Hnone; [discriminate | reflexivity]).
           ++ (* = *) apply Hnone; [discriminate|]. apply zero_cmp_assign. now apply (hd_after_op (ASym SAssign)).
           ++ (* cmp: the terminal r"0\s*cmp" *)
              cbn [map snd glue].
              apply (lex_step n _ _ (TZCmp c0) (spaced r2 tr) _ Hskip Hne); [|exact IH2].
              rewrite scan_zero, Hsk. cbn [atom_text sym_text].
              rewrite zero_cmp_cmp by (now apply (hd_after_op (ASym (SCmp c0)))). reflexivity.
      * (* a positive number *)
        rewrite glue_num_pos by discriminate.
        apply Step.
        apply scan_num_pos. now apply (hd_after_wordy (ANum (Npos p))).
    + (* symbols *)
      cbn [atom_text] in *.
      destruct (plain1 y) eqn:Hp1.
      { rewrite glue_sym by (destruct y; try discriminate; reflexivity).
        apply Step. now apply scan_plain1. }
      destruct y as [| | | | | | | | | | | |c0| | | | |]; try discriminate Hp1.
      * (* => *) rewrite glue_sym by reflexivity.
        apply Step. apply scan_arrow.
      * (* : and r":\s*cns" *)
        destruct r as [|[w' b] r2].
        { apply Step.
          rewrite scan_colon. cbn [spaced]. now rewrite skip_ws_blank_nil. }
        destruct (Hnext w' b r2 eq_refl) as (Hw' & Hcl & Hc2 & Hb & Hok2 & Hsk & IH2).
        destruct b as [s1|k1|y1|];
          [| rewrite glue_colon by reflexivity; apply Step; rewrite scan_colon, Hsk;
             rewrite starts_cns_other; auto; discriminate ..].
        (* a word: "cns" makes the one terminal, any other word does not start with it *)
        destruct (String.eqb_spec s1 "cns") as [->|Hs1].
        -- cbn [map snd]. rewrite glue_colon_cns.
           apply (lex_step n _ _ TColonCns (spaced r2 tr) _ Hskip Hne); [|exact IH2].
           rewrite scan_colon, Hsk. reflexivity.
        -- rewrite glue_colon by (cbn [map snd nocns]; apply negb_true_iff; now apply String.eqb_neq).
           apply Step.
           rewrite scan_colon, Hsk. cbn [atom_text].
           rewrite starts_cns_word; auto. now apply (hd_after_wordy (AWord s1)).
      * (* = *) rewrite glue_sym by reflexivity.
        apply Step.
        apply scan_assign. now apply (hd_after_op (ASym SAssign)).
      * (* comparison operators and r"cmp\s*0" *)
        assert (Hscan : scan (cmp_text c0 ++ spaced r tr) = after_cmp c0 (spaced r tr))
          by (apply scan_cmp; now apply (hd_after_op (ASym (SCmp c0)))).
        destruct r as [|[w' b] r2].
        { apply Step.
          cbn [sym_text]. rewrite Hscan, after_cmp_spec. cbn [spaced]. now rewrite skip_ws_blank_nil. }
        destruct (Hnext w' b r2 eq_refl) as (Hw' & Hcl & Hc2 & Hb & Hok2 & Hsk & IH2).
        destruct (match b with ANum 0 => true | _ => false end) eqn:Eb.
        -- destruct b as [|[|]| |]; try discriminate Eb. cbn [map snd]. rewrite glue_cmpz.
           apply (lex_step n _ _ (TCmpZ c0) (spaced r2 tr) _ Hskip Hne); [|exact IH2].
           cbn [sym_text]. rewrite Hscan, after_cmp_spec, Hsk. reflexivity.
        -- rewrite glue_cmp by (cbn [map snd nozero]; destruct b as [|[|]| |]; try reflexivity; discriminate Eb).
           apply Step.
           cbn [sym_text]. rewrite Hscan, after_cmp_spec, Hsk.
           rewrite is0_text; auto. intros ->. discriminate.
      * (* / *) rewrite glue_sym by reflexivity.
        apply Step.
        apply scan_slash. now apply (hd_after_op (ASym SSlash)).
    + (* the comment: no token *)
      rewrite glue_comment. cbn [atom_text] in *.
      apply (lex_step_skip n _ _ (skip_while is_nl (spaced r tr)) _ Hskip Hne); [apply scan_comment|].
      now rewrite lex_skip_nl.
Qed.

Theorem render_any_layout_tokens d s :
  safe_doc d = true -> words_ok d = true -> renders d s -> lex_string s = Some (tokens d).
Proof.
  unfold safe_doc, safe_items, renders, lex_string, tokens, atoms, words_ok. intros Hs Hw Hr.
  destruct (chunks_of_render _ _ Hr None None "" eq_refl (fun H => ltac:(discriminate H)) Hs)
    as (ps & tr & E & Htr & Hm & Hc).
  cbn [append] in E. rewrite E, <- Hm.
  apply (lex_chunks (List.length ps) ps (le_n _) None); auto.
  now rewrite Hm.
Qed.

(* ---------- the words of a printed program are lexable words ---------- *)
(* [Wd d]: every word atom of [d] is lexable ([ak d k], FmtGlue.v: the atoms of d in front of k). *)
Definition Wd (d : doc) : Prop := forall k, forallb atom_ok (ak d k) = forallb atom_ok k.
Lemma Wd_nil : Wd DNil. Proof. intros k; reflexivity. Qed.
Lemma Wd_text a : atom_ok a = true -> Wd (DText a).
Proof. intros H k. cbn [ak forallb]. now rewrite H. Qed.
Lemma Wd_append a b : Wd a -> Wd b -> Wd (DAppend a b).
Proof. intros Ha Hb k. cbn [ak]. now rewrite Ha, Hb. Qed.
Lemma Wd_nest i d : Wd d -> Wd (DNest i d). Proof. intros H k. apply H. Qed.
Lemma Wd_group d : Wd d -> Wd (DGroup d). Proof. intros H k. apply H. Qed.
Lemma Wd_align d : Wd d -> Wd (DAlign d). Proof. intros H k. apply H. Qed.
Lemma Wd_sep_ c : Wd (sep_ c).
Proof. unfold sep_. destruct (plinebreaks c); intros k; reflexivity. Qed.
Lemma Wd_acommas (l : list doc) k : (forall d, In d l -> Wd d) ->
  forallb atom_ok (acommas (map ak l) k) = forallb atom_ok k.
Proof.
  intros H. induction l as [|d l IH]; [reflexivity|].
  assert (IH' := IH (fun x Hx => H x (or_intror Hx))).
  destruct l as [|e l'].
  - cbn [map acommas]. apply (H d). now left.
  - change (acommas (map ak (d :: e :: l')) k) with (ak d (ASym SComma :: acommas (map ak (e :: l')) k)).
    rewrite (H d) by (now left). cbn [forallb atom_ok]. exact IH'.
Qed.
Lemma Wd_comma_sep c l : (forall d, In d l -> Wd d) -> Wd (comma_sep c l).
Proof. intros H k. rewrite ak_comma_sep. now apply Wd_acommas. Qed.
Lemma Wd_intersperse_commas sep l : (forall X, ak sep X = ASym SComma :: X) -> (forall d, In d l -> Wd d) ->
  Wd (intersperse l sep).
Proof. intros Hs H k. rewrite ak_intersperse by assumption. now apply Wd_acommas. Qed.
Lemma In_map_Wd {X} (f : X -> doc) (l : list X) : (forall x, In x l -> Wd (f x)) -> forall d, In d (map f l) -> Wd d.
Proof. intros H d Hd. apply in_map_iff in Hd. destruct Hd as (x & <- & Hx). now apply H. Qed.

Ltac wd :=
  repeat match goal with
         | |- Wd _ => assumption
         | |- Wd (word _) => apply Wd_text; reflexivity
         | |- Wd (dsym _) => apply Wd_text; reflexivity
         | |- Wd (DAppend _ _) => apply Wd_append
         | |- Wd (DNest _ _) => apply Wd_nest
         | |- Wd (DGroup _) => apply Wd_group
         | |- Wd (DAlign _) => apply Wd_align
         | |- Wd DNil => apply Wd_nil
         | |- Wd (sep_ _) => apply Wd_sep_
         | |- Wd (DText _) => apply Wd_text; reflexivity
         | |- Wd _ => exact (fun k => eq_refl)        (* separators and the comment *)
         end.

Lemma lower_word_ok v : lower_ok v = true -> word_ok v = true.
Proof.
  unfold lower_ok, word_ok. intros H. apply andb_prop in H. destruct H as [H _]. destruct v; [discriminate|].
  apply andb_prop in H. destruct H as [-> ->]. reflexivity.
Qed.
Lemma upper_word_ok v : upper_ok v = true -> word_ok v = true.
Proof.
  unfold upper_ok, word_ok. destruct v; [discriminate|]. intros H.
  apply andb_prop in H. destruct H as [-> ->]. now rewrite orb_true_r.
Qed.
Lemma Wd_word s : word_ok s = true -> Wd (word s).
Proof. intros H. apply Wd_text. exact H. Qed.

Section Words.
Variable c : pcfg.
Lemma W_opt_list l r ds : (forall d, In d ds -> Wd d) -> Wd (opt_list_doc c l r ds).
Proof.
  intros H. destruct ds as [|d ds']; [apply Wd_nil|]. remember (d :: ds') as ds.
  assert (opt_list_doc c l r ds = DGroup (enclose l r (DAppend (DNest (pindent c) (DAppend (sep_ c) (comma_sep c ds))) (sep_ c))))
    as -> by (subst ds; reflexivity).
  unfold enclose, dsym. assert (Wd (comma_sep c ds)) by (now apply Wd_comma_sep). wd.
Qed.
Lemma W_tyargs_of targs : (forall t, In t targs -> Wd (d_ty c t)) -> Wd (d_tyargs c targs).
Proof. intros H. rewrite d_tyargs_list. now apply W_opt_list, In_map_Wd. Qed.
Lemma W_ty t : wf_ty t = true -> Wd (d_ty c t).
Proof.
  apply (wf_ty_ind (fun t => Wd (d_ty c t))); clear t; [apply Wd_text; reflexivity|].
  intros n targs Hn Hargs. rewrite d_ty_decl.
  apply Wd_append; [now apply Wd_word, upper_word_ok | apply W_tyargs_of; intros t Ht; now apply Hargs].
Qed.
Lemma W_tyargs targs : forallb wf_ty targs = true -> Wd (d_tyargs c targs).
Proof. intros H. rewrite forallb_forall in H. apply W_tyargs_of. intros t Ht. apply W_ty. now apply H. Qed.
Lemma W_namectx names : forallb lower_ok names = true -> Wd (d_namectx c names).
Proof.
  intros H. rewrite forallb_forall in H. rewrite d_namectx_list. apply W_opt_list, In_map_Wd.
  intros s Hs. now apply Wd_word, lower_word_ok, H.
Qed.
Lemma W_typectx names : forallb upper_ok names = true -> Wd (d_typectx c names).
Proof.
  intros H. rewrite forallb_forall in H. rewrite d_typectx_list. apply W_opt_list, In_map_Wd.
  intros s Hs. now apply Wd_word, upper_word_ok, H.
Qed.
Lemma W_binding b : wf_binding b = true -> Wd (d_binding c b).
Proof.
  unfold wf_binding. intros H. apply andb_prop in H. destruct H as [Hv Hty]. unfold d_binding, dsym.
  assert (Wd (word (fbvar b))) by (now apply Wd_word, lower_word_ok).
  assert (Wd (d_ty c (fbty b))) by (now apply W_ty).
  assert (Wd (d_chi (fbchi b))) by (destruct (fbchi b); unfold d_chi, word; wd).
  wd.
Qed.
Lemma W_args (l : list doc) : (forall d, In d l -> Wd d) -> Wd (d_args c l).
Proof.
  intros H. unfold d_args. destruct l as [|d l']; [apply Wd_nil|].
  assert (Wd (comma_sep c (d :: l'))) by (now apply Wd_comma_sep). wd.
Qed.
Lemma W_ctx g : wf_ctx g = true -> Wd (d_ctx c g).
Proof.
  intros H. unfold wf_ctx in H. rewrite forallb_forall in H. rewrite d_ctx_args. apply W_args, In_map_Wd.
  intros b Hb. now apply W_binding, H.
Qed.

Lemma W_optargs (l : list doc) : (forall d, In d l -> Wd d) -> Wd (d_optargs c l).
Proof.
  intros H. unfold d_optargs. destruct l as [|d l']; [apply Wd_nil|]. unfold parens, enclose, dsym.
  assert (Wd (d_args c (d :: l'))) by (now apply W_args). wd.
Qed.
Lemma W_decl_body sigs : (forall d, In d sigs -> Wd d) -> Wd (d_decl_body c sigs).
Proof.
  intros H. unfold d_decl_body, braces, enclose, dsym. destruct sigs as [|a l]; [wd|].
  assert (Wd (intersperse (a :: l) (DAppend (DText (ASym SComma)) DLine))) by (now apply Wd_intersperse_commas).
  wd.
Qed.
Lemma W_clauses (l : list doc) : (forall d, In d l -> Wd d) -> Wd (d_clauses c l).
Proof. intros H k. rewrite ak_clauses, <- (ak_decl_body c). now apply W_decl_body. Qed.

Lemma W_clause_docs pol cls :
  (forall p x ns g body, In (FClause p x ns g body) cls ->
     wf_clause pol (FClause p x ns g body) = true /\ Wd (d_term c body)) ->
  forall d, In d (map (d_clause c) cls) -> Wd d.
Proof.
  intros H. apply In_map_Wd. intros [p x ns g body] Hin. destruct (H _ _ _ _ _ Hin) as [Hw Hb].
  cbn [wf_clause] in Hw. rewrite !andb_true_iff in Hw. destruct Hw as ((((Hp & Hx) & Hns) & _) & _).
  assert (Wd (d_namectx c ns)) by (now apply W_namectx).
  assert (Wd (word x)) by (apply Wd_word; destruct pol; [now apply upper_word_ok | now apply lower_word_ok]).
  cbn [d_clause]. unfold dsym. wd.
Qed.
Lemma W_term t : wf t = true -> Wd (d_term c t).
Proof.
  apply (wf_ind (fun t => Wd (d_term c t))); clear t; cbv beta.
  - intros v Hv. cbn [d_term]. now apply Wd_word, lower_word_ok.
  - intros z _. cbn [d_term]. unfold d_lit, dsym. destruct (z <? 0)%Z; wd.
  - intros a o b _ _ _ Ha Hb. assert (Wd (d_binop o)) by (destruct o; apply Wd_text; reflexivity). cbn [d_term]. wd.
  - intros s a b th el _ _ Ha Hb Hth Hel. cbn [d_term]. unfold block, braces, enclose, word, dsym.
    destruct b as [b|]; [destruct (ends_zero a), (starts_zero b) | destruct (ends_zero a)]; wd.
  - intros nl a next Ha Hn. cbn [d_term]. unfold pblock, parens, enclose, word, dsym. destruct nl; wd.
  - intros v vty b t _ Hv Hvty _ Hb Ht.
    assert (Wd (d_ty c vty)) by (now apply W_ty). assert (Wd (word v)) by (now apply Wd_word, lower_word_ok).
    cbn [d_term]. unfold dsym. wd.
  - intros f args _ Hf Hargs.
    rewrite d_term_call.
    assert (Wd (d_args c (map (d_term c) args))) by (now apply W_args, In_map_Wd).
    assert (Wd (word f)) by (now apply Wd_word, lower_word_ok). unfold parens, enclose, dsym. wd.
  - intros x args _ Hx Hargs.
    rewrite d_term_ctor.
    assert (Wd (d_optargs c (map (d_term c) args))) by (now apply W_optargs, In_map_Wd).
    assert (Wd (word x)) by (now apply Wd_word, upper_word_ok). wd.
  - intros s x targs args _ _ Hx Hty Hs Hargs.
    rewrite d_term_dtor. cbv zeta.
    assert (Wd (d_optargs c (map (d_term c) args))) by (now apply W_optargs, In_map_Wd).
    assert (Wd (d_tyargs c targs)) by (now apply W_tyargs).
    assert (Wd (word x)) by (now apply Wd_word, lower_word_ok).
    destruct (short_scrutinee c s); unfold dsym; wd.
  - intros s targs cls _ _ Hty Hs Hcls.
    rewrite d_term_case.
    assert (Wd (d_clauses c (map (d_clause c) cls))) by (now apply W_clauses, (W_clause_docs FData)).
    assert (Wd (d_tyargs c targs)) by (now apply W_tyargs).
    destruct (is_dtor s); unfold dsym, word; wd.
  - intros cls _ Hcls.
    rewrite d_term_new.
    assert (Wd (d_clauses c (map (d_clause c) cls))) by (now apply W_clauses, (W_clause_docs FCodata)).
    unfold word. wd.
  - intros l u _ Hl Hu. assert (Wd (word l)) by (now apply Wd_word, lower_word_ok).
    cbn [d_term]. unfold block, braces, enclose, dsym. wd.
  - intros l u _ Hl Hu. assert (Wd (word l)) by (now apply Wd_word, lower_word_ok).
    cbn [d_term]. unfold pblock, parens, enclose, dsym. wd.
  - intros a _ Ha. cbn [d_term]. unfold word. wd.
  - intros u _ Hu. cbn [d_term]. unfold pblock, parens, enclose, dsym. wd.
Qed.

Lemma W_sigargs g : wf_ctx g = true -> Wd (d_sigargs c g).
Proof.
  intros H. unfold d_sigargs. assert (Wd (d_ctx c g)) by (now apply W_ctx).
  destruct g; unfold parens, enclose, dsym; wd.
Qed.
Lemma W_decl d : wf_decl d = true -> Wd (d_decl c d).
Proof.
  intros Hwf. destruct d as [d|d|d]; cbn [wf_decl d_decl] in *.
  - rewrite !andb_true_iff in Hwf. destruct Hwf as ((Hx & Hps) & Hcs). rewrite forallb_forall in Hcs.
    unfold d_data.
    assert (Wd (d_decl_body c (map (d_ctorsig c) (fdactors d)))).
    { apply W_decl_body, In_map_Wd. intros s Hs. specialize (Hcs s Hs). apply andb_prop in Hcs. destruct Hcs as [Hn Hg].
      unfold d_ctorsig. assert (Wd (d_sigargs c (fctargs s))) by (now apply W_sigargs).
      assert (Wd (word (fctname s))) by (now apply Wd_word, upper_word_ok). wd. }
    assert (Wd (d_typectx c (fdaparams d))) by (now apply W_typectx).
    assert (Wd (word (fdaname d))) by (now apply Wd_word, upper_word_ok). unfold word in *. wd.
  - rewrite !andb_true_iff in Hwf. destruct Hwf as ((Hx & Hps) & Hds). rewrite forallb_forall in Hds.
    unfold d_codata.
    assert (Wd (d_decl_body c (map (d_dtorsig c) (fcodtors d)))).
    { apply W_decl_body, In_map_Wd. intros s Hs. specialize (Hds s Hs). rewrite !andb_true_iff in Hds.
      destruct Hds as ((Hn & Hg) & Hty).
      unfold d_dtorsig. assert (Wd (d_sigargs c (fdtargs s))) by (now apply W_sigargs).
      assert (Wd (d_ty c (fdtcont s))) by (now apply W_ty).
      assert (Wd (word (fdtname s))) by (now apply Wd_word, lower_word_ok). unfold dsym. wd. }
    assert (Wd (d_typectx c (fcoparams d))) by (now apply W_typectx).
    assert (Wd (word (fcoaname d))) by (now apply Wd_word, upper_word_ok). unfold word in *. wd.
  - rewrite !andb_true_iff in Hwf. destruct Hwf as (((Hf & Hg) & Hret) & Hbody).
    unfold d_def.
    assert (Wd (d_term c (fdbody d))) by (now apply W_term).
    assert (Wd (d_ty c (fdret d))) by (now apply W_ty).
    assert (Wd (d_ctx c (fdctx d))) by (now apply W_ctx).
    assert (Wd (word (fdname d))) by (now apply Wd_word, lower_word_ok).
    unfold parens, braces, enclose, dsym, word in *. wd.
Qed.
Theorem words_ok_print p : wf_prog p = true -> words_ok (d_prog c p) = true.
Proof.
  intros Hwf. unfold words_ok. rewrite atoms_ak. destruct p as [ds]. unfold wf_prog, d_prog in *. cbn [fpdecls] in *.
  rewrite forallb_forall in Hwf.
  rewrite ak_intersperse_blank by (intros; destruct (pomit_sep c); reflexivity).
  induction ds as [|d ds IH]; [reflexivity|]. cbn [map fold_right].
  rewrite (W_decl d) by (apply Hwf; now left). apply IH. intros; apply Hwf; now right.
Qed.
End Words.
