(* Proof/ShrinkTyping.v (property C12): shrinking preserves typing on the FIRST-ORDER INTEGER FRAGMENT
   (the fragment of C04's semantic theorem, Proof/ShrinkSem.v: <n | mu~x.s>, <a op b | mu~x.s>, ifc,
   print, exit, calls with integer producer arguments; all parameters integer producers).
   Here no bound on the ids is assumed.  Everything that involves a consumer, and the global
   distinctness of binders (binders_ok), is outside this fragment: the whole language is covered, under
   its own hypotheses, by Proof/ShrinkTyProg.v and Proof/ShrinkBindersOk.v.  Holds [names_plain]. *)
From Coq Require Import List ZArith NArith String Bool Lia.
From SCC Require Import Proof.CoreInd.
From SCC Require Import Base.Sexp Lang.SynUtil Lang.CoreSyn Lang.AxSyn Sem.FsCheck Model.Shrink Model.LinCheck Model.WtDefs.
From SCC Require Sem.AxCheck.
From SCC Require Import Proof.ShrinkProof Proof.ShrinkSem.
Import ListNotations.
Open Scope list_scope.

Lemma ax_seq_none {X} (a b : option X) : match a with None => b | Some e => Some e end = None -> a = None /\ b = None.
Proof. destruct a; [discriminate|auto]. Qed.

Lemma int_binding_eq b : int_binding b = true -> cbchi b = CPrd /\ cbty b = CI64.
Proof.
  unfold int_binding. intros H. apply andb_true_iff in H as [H1 H2]. split.
  - destruct (cbchi b); [reflexivity|discriminate].
  - apply cty_eqb_eq_i64. exact H2.
Qed.
Lemma shrink_int cd b : int_binding b = true -> shrink_binding cd b = mkb (cbvar b) Ext I64.
Proof. intros H. destruct (int_binding_eq b H) as [Hc Ht]. unfold shrink_binding. rewrite Hc, Ht. reflexivity. Qed.

Section Ctx.
Variable cd : list ctydecl.
Notation sc := (shrink_context cd).

Lemma lookup_shrink : forall G x, forallb int_binding G = true ->
  AxCheck.lookup_b (sc G) x = option_map (fun b => mkb (cbvar b) Ext I64) (flookup G x).
Proof.
  induction G as [|b G IH]; intros x H; [reflexivity|]. cbn [forallb] in H. apply andb_true_iff in H as [Hb HG].
  cbn [shrink_context map AxCheck.lookup_b flookup]. rewrite (shrink_int cd b Hb). cbn [bvar idn].
  unfold cid_id, idn. destruct (N.eqb (snd (cbvar b)) x); [reflexivity|]. apply IH. exact HG.
Qed.
Lemma bound_shrink G v : forallb int_binding G = true ->
  fbound G v CPrd CI64 = None -> AxCheck.bound (sc G) v Ext I64 = None.
Proof.
  intros HG H. unfold fbound in H. unfold AxCheck.bound. rewrite (lookup_shrink G _ HG). unfold cid_id, idn in *.
  destruct (flookup G (snd v)) as [b|]; [|discriminate]. reflexivity.
Qed.
Lemma fresh_shrink G v scope : forallb int_binding G = true ->
  (forall i, In i (cids G) -> In i scope) -> mem_id (cid_id v) scope = false ->
  AxCheck.fresh_for (sc G) v = None.
Proof.
  intros HG Hs Hm. unfold AxCheck.fresh_for. rewrite (lookup_shrink G _ HG). unfold idn, cid_id in *.
  destruct (flookup G (snd v)) as [b|] eqn:E; [|reflexivity]. exfalso.
  assert (In (snd v) scope).
  { apply Hs. clear -E. induction G as [|b0 G IH]; [discriminate|]. cbn [flookup] in E. cbn [cids map].
    unfold cid_id in *. destruct (N.eqb (snd (cbvar b0)) (snd v)) eqn:Q; [left; apply N.eqb_eq; exact Q|right; apply IH; exact E]. }
  unfold mem_id in Hm. assert (existsb (N.eqb (snd v)) scope = true) by (apply existsb_exists; exists (snd v); split; [assumption|apply N.eqb_refl]).
  congruence.
Qed.
Lemma args_shrink what what' G : forallb int_binding G = true -> forall args sig,
  forallb int_binding args = true -> fargs_ok what G args sig = None ->
  AxCheck.args_ok what' (sc G) (sc args) (sc sig) = None.
Proof.
  intros HG. induction args as [|a ar IH]; intros [|s sr] Ha H; cbn [fargs_ok] in H; try discriminate; [reflexivity|].
  cbn [forallb] in Ha. apply andb_true_iff in Ha as [Ha1 Ha2].
  apply seq_none in H as [H1 H]. apply seq_none in H as [H2 H]. apply fensure_none in H1.
  destruct (int_binding_eq a Ha1) as [Hc Ht]. unfold csame_sig in H1. rewrite Hc, Ht in H1.
  apply andb_true_iff in H1 as [S1 S2].
  assert (Hs : int_binding s = true).
  { unfold int_binding. destruct (cbchi s); [|discriminate]. destruct (cbty s); [reflexivity|discriminate]. }
  cbn [shrink_context map AxCheck.args_ok]. rewrite (shrink_int cd a Ha1), (shrink_int cd s Hs).
  unfold AxCheck.same_sig. cbn [bchi bty bvar chi_eqb ty_eqb andb AxCheck.ensure].
  rewrite Hc, Ht in H2. rewrite (bound_shrink G (cbvar a) HG H2). apply (IH sr Ha2 H).
Qed.
End Ctx.

Section Frag.
Variable data codata : list ctydecl.
Variable defs : list fsdef.
Variable ts : list tydecl.
Notation sc := (shrink_context codata).
Notation ds' := (map (shf_def codata) defs).

Lemma find_shf f d : find (fun d => cident_eqb (fsdname d) f) defs = Some d ->
  find (fun d' => ident_eqb (dname d') f) ds' = Some (shf_def codata d).
Proof.
  induction defs as [|d0 r IH]; cbn [find map]; [discriminate|].
  unfold shf_def at 1. cbn [dname]. change (ident_eqb (fsdname d0) f) with (cident_eqb (fsdname d0) f).
  destruct (cident_eqb (fsdname d0) f); [intros H; inversion H; reflexivity|exact IH].
Qed.

Lemma frag_typed : forall (n : nat) s, (fsz s <= n)%nat -> forall G scope,
  frag s = true -> forallb int_binding G = true ->
  check_stmt data codata defs G s = None ->
  ub_stmt scope s = true -> (forall i, In i (cids G) -> In i scope) ->
  AxCheck.check_stmt ts ds' (sc G) (shf codata s) = None /\ pre_linear (shf codata s) = true.
Proof.
  induction n as [|n IH]; intros s Hsz G scope Hf HG HC HU HS; [pose proof (fsz_pos s); lia|].
  destruct s as [p ty k|so a b t e|nl a nx|f args|v]; cbn [frag] in Hf.
  - (* cut: literal / operation against mu~ *)
    destruct p; try discriminate Hf; destruct k; try discriminate Hf; cbn [fsz fsz_term] in Hsz;
      rewrite check_stmt_cut_eq in HC; apply seq_none in HC as [A HC]; apply seq_none in HC as [B C];
      rewrite check_term_mu_eq in C; apply seq_none in C as [C1 C]; apply seq_none in C as [C2 C];
      cbn [check_term] in B; apply seq_none in B as [B1 B];
      cbn [ub_stmt ub_term andb] in HU; apply andb_true_iff in HU as [HU1 HU2]; apply negb_true_iff in HU1.
    + apply fensure_none in B. apply cty_eqb_eq_i64 in B. subst ty. cbn [opp] in C.
      destruct (IH s ltac:(lia) (mkcb v CPrd CI64 :: G) (cid_id v :: scope) Hf) as [I1 I2].
      { cbn [forallb]. rewrite HG. reflexivity. }
      { exact C. } { exact HU2. }
      { intros i [<-|Hi]; [left; reflexivity|right; apply HS; exact Hi]. }
      cbn [shf AxCheck.check_stmt pre_linear]. rewrite (fresh_shrink codata G v scope HG HS HU1). split; [exact I1|exact I2].
    + apply seq_none in B as [B2 B]. apply fensure_none in B2. apply cty_eqb_eq_i64 in B2. subst ty. cbn [opp] in C.
      apply seq_none in B as [B3 B4].
      destruct (IH s ltac:(lia) (mkcb v CPrd CI64 :: G) (cid_id v :: scope) Hf) as [I1 I2].
      { cbn [forallb]. rewrite HG. reflexivity. }
      { exact C. } { exact HU2. }
      { intros i [<-|Hi]; [left; reflexivity|right; apply HS; exact Hi]. }
      cbn [shf AxCheck.check_stmt pre_linear].
      rewrite (bound_shrink codata G a HG B3), (bound_shrink codata G b HG B4), (fresh_shrink codata G v scope HG HS HU1).
      split; [exact I1|exact I2].
  - (* ifc *)
    apply andb_true_iff in Hf as [Hf1 Hf2]. cbn [fsz] in Hsz. rewrite check_stmt_ifc_eq in HC.
    apply seq_none in HC as [A HC]. apply seq_none in HC as [B HC]. apply seq_none in HC as [Ct Ce].
    cbn [ub_stmt] in HU. apply andb_true_iff in HU as [HU1 HU2].
    destruct (IH t ltac:(lia) G scope Hf1 HG Ct HU1 HS) as [T1 T2].
    destruct (IH e ltac:(lia) G scope Hf2 HG Ce HU2 HS) as [E1 E2].
    cbn [shf AxCheck.check_stmt pre_linear]. rewrite (bound_shrink codata G a HG A), T1, E1, T2, E2.
    destruct b as [b|]; cbn [option_map]; [rewrite (bound_shrink codata G b HG B)|]; split; reflexivity.
  - (* print *)
    cbn [fsz] in Hsz. rewrite check_stmt_print_eq in HC. apply seq_none in HC as [A HC]. cbn [ub_stmt] in HU.
    destruct (IH nx ltac:(lia) G scope Hf HG HC HU HS) as [N1 N2].
    cbn [shf AxCheck.check_stmt pre_linear]. rewrite (bound_shrink codata G a HG A). split; [exact N1|exact N2].
  - (* call *)
    cbn [check_stmt] in HC. destruct (find _ defs) as [d|] eqn:F; [|discriminate].
    cbn [shf AxCheck.check_stmt pre_linear]. rewrite (find_shf _ _ F). unfold shf_def. cbn [dctx].
    split; [|reflexivity]. eapply args_shrink; eauto.
  - (* exit *)
    cbn [check_stmt] in HC. cbn [shf AxCheck.check_stmt pre_linear]. split; [|reflexivity]. apply bound_shrink; assumption.
Qed.
End Frag.

Lemma nodup_by_same : forall l : list cident, AxCheck.nodup_by ident_eqb l = FsCheck.nodup_by cident_eqb l.
Proof. induction l as [|x r IH]; cbn; [reflexivity|]. rewrite IH. reflexivity. Qed.
Lemma nodup_by_sameN : forall l : list N, AxCheck.nodup_by N.eqb l = FsCheck.nodup_by N.eqb l.
Proof. induction l as [|x r IH]; cbn; [reflexivity|]. rewrite IH. reflexivity. Qed.
Lemma cident_eqb_sym a b : cident_eqb a b = cident_eqb b a.
Proof.
  destruct (cident_eqb a b) eqn:E.
  - apply cident_eqb_eq in E. subst. symmetry. apply cident_eqb_refl.
  - destruct (cident_eqb b a) eqn:E'; [|reflexivity]. apply cident_eqb_eq in E'. subst. rewrite cident_eqb_refl in E. discriminate.
Qed.
Lemma nodup_insert c : forall l1 l2 : list cident,
  FsCheck.nodup_by cident_eqb (l1 ++ l2) = true -> existsb (fun x => cident_eqb x c) (l1 ++ l2) = false ->
  FsCheck.nodup_by cident_eqb (l1 ++ c :: l2) = true.
Proof.
  induction l1 as [|a r IH]; intros l2 H E; cbn [app FsCheck.nodup_by] in *.
  - rewrite H, andb_true_r. apply negb_true_iff. rewrite <- E. clear. induction l2 as [|y l IH]; cbn; [reflexivity|].
    rewrite (cident_eqb_sym c y), IH. reflexivity.
  - cbn [existsb] in E. apply orb_false_iff in E as [E1 E2]. apply andb_true_iff in H as [H1 H2].
    rewrite (IH l2 H2 E2), andb_true_r. apply negb_true_iff. apply negb_true_iff in H1.
    rewrite existsb_app in *. cbn [existsb]. apply orb_false_iff in H1 as [H3 H4]. rewrite H3, H4, E1. reflexivity.
Qed.

Lemma tname_shrink cd l : map tname (map (shrink_declaration cd) l) = map ctname l.
Proof. induction l as [|t r IH]; cbn; [reflexivity|]. rewrite IH. reflexivity. Qed.
Lemma existsb_map_ {X Y} (f : Y -> bool) (g : X -> Y) l : existsb f (map g l) = existsb (fun x => f (g x)) l.
Proof. induction l as [|x r IH]; cbn; [reflexivity|]. rewrite IH. reflexivity. Qed.

Lemma forallb_map_ {X Y} (f : Y -> bool) (g : X -> Y) l : forallb f (map g l) = forallb (fun x => f (g x)) l.
Proof. induction l as [|x r IH]; cbn; [reflexivity|]. rewrite IH. reflexivity. Qed.

(* the declarations of the shrunk program pass the checker's conditions on type and xtor names *)
Lemma check_types_shrink : forall data codata : list ctydecl,
  FsCheck.nodup_by cident_eqb (map ctname (data ++ codata)) = true ->
  negb (existsb (fun t => cident_eqb (ctname t) cont_name_fs) (data ++ codata)) = true ->
  forallb (fun t => FsCheck.nodup_by cident_eqb (map cxname (ctxtors t))) (data ++ codata) = true ->
  AxCheck.check_types (map (shrink_declaration codata) (data ++ [cont_int]) ++ map (shrink_declaration codata) codata) = None.
Proof.
  intros data codata C1 C2 C3. unfold AxCheck.check_types.
  set (ts := map (shrink_declaration codata) (data ++ [cont_int]) ++ map (shrink_declaration codata) codata).
  assert (N1 : AxCheck.nodup_by ident_eqb (map tname ts) = true).
  { unfold ts. rewrite map_app, !tname_shrink, map_app. cbn [map]. rewrite <- app_assoc. cbn [app].
    rewrite nodup_by_same. rewrite map_app in C1. apply nodup_insert; [exact C1|].
    apply negb_true_iff in C2. rewrite <- map_app, existsb_map_. exact C2. }
  rewrite N1. cbn [AxCheck.ensure].
  assert (N2 : forallb (fun t => AxCheck.nodup_by ident_eqb (map xname (txtors t))) ts = true).
  { unfold ts. rewrite forallb_app, !forallb_map_.
    assert (G : forall l, forallb (fun t => FsCheck.nodup_by cident_eqb (map cxname (ctxtors t))) l = true ->
                          forallb (fun t => AxCheck.nodup_by ident_eqb (map xname (txtors (shrink_declaration codata t)))) l = true).
    { induction l as [|t r IH]; [reflexivity|]. cbn [forallb]. intros H. apply andb_true_iff in H as [H1 H2].
      rewrite (IH H2), andb_true_r. cbn [shrink_declaration txtors]. rewrite map_map. cbn [shrink_xtor xname shrink_identifier].
      rewrite nodup_by_same. exact H1. }
    rewrite forallb_app in C3. apply andb_true_iff in C3 as [D1 D2]. rewrite forallb_app.
    rewrite (G _ D1), (G _ D2). reflexivity. }
  rewrite N2. reflexivity.
Qed.

Definition names_plain (p : fsprog) : bool := forallb (fun d => N.eqb (snd (fsdname d)) 0) (fspdefs p).

Theorem shrink_preserves_typing_frag : forall p q,
  frag_prog p = true -> names_plain p = true -> wt_fs p = true -> unique_binders p = true ->
  shrink_prog p = SOk q ->
  AxCheck.check_prog q = None /\ pre_linear_prog q = true.
Proof.
  intros p q Hfrag Hnames Hwt Hub Hsh.
  unfold wt_fs in Hwt. destruct (check_fs p) eqn:Hc; [discriminate|]. clear Hwt.
  unfold check_fs in Hc.
  apply seq_none in Hc as [C0 Hc]. apply seq_none in Hc as [C1 Hc]. apply seq_none in Hc as [C2 Hc].
  apply seq_none in Hc as [C3 Hc]. apply seq_none in Hc as [C4 C5].
  apply fensure_none in C1. apply fensure_none in C2. apply fensure_none in C3. apply fensure_none in C4.
  unfold shrink_prog in Hsh. destruct (_ || _); [discriminate|].
  rewrite shrink_defs_frag in Hsh; [|exact Hfrag]. cbn [sbind] in Hsh. inversion Hsh; subst q; clear Hsh.
  cbn [frev rev_append app].
  set (codata := fspcodata p) in *. set (data := fspdata p) in *.
  set (ts := map (shrink_declaration codata) (data ++ [cont_int]) ++ map (shrink_declaration codata) codata).
  set (ds' := map (shf_def codata) (fspdefs p)).
  assert (DEFS : forall d, In d (fspdefs p) ->
            AxCheck.check_def ts ds' (shf_def codata d) = None /\ pre_linear (shf codata (fsdbody d)) = true).
  { intros d Hd.
    pose proof (check_defs_in p _ d C5 Hd) as Hs.
    assert (Hn : nodup_by N.eqb (cids (fsdctx d)) = true).
    { clear -C5 Hd. induction (fspdefs p) as [|a r IH]; [contradiction|]. cbn [check_defs] in C5.
      apply seq_none in C5 as [A B]. apply fensure_none in A.
      destruct (check_stmt _ _ _ (fsdctx a) (fsdbody a)); [discriminate|]. destruct Hd as [->|Hd]; [exact A|apply IH; assumption]. }
    unfold frag_prog in Hfrag. pose proof (proj1 (forallb_forall _ _) Hfrag d Hd) as Hfd. unfold frag_def in Hfd.
    apply andb_true_iff in Hfd as [Hfc Hfb].
    unfold unique_binders in Hub. pose proof (proj1 (forallb_forall _ _) Hub d Hd) as Hu. cbn beta in Hu.
    apply andb_true_iff in Hu as [_ Hu].
    unfold names_plain in Hnames. pose proof (proj1 (forallb_forall _ _) Hnames d Hd) as Hnm. cbn beta in Hnm.
    destruct (frag_typed data codata (fspdefs p) ts (fsz (fsdbody d)) (fsdbody d) (le_n _) (fsdctx d) (cids (fsdctx d))
                Hfb Hfc Hs Hu (fun i H => H)) as [T1 T2].
    split; [|exact T2].
    unfold AxCheck.check_def, shf_def. cbn [dname dctx dbody]. unfold AxCheck.is_lifted_name. cbn [snd]. rewrite Hnm, andb_false_r.
    rewrite ids_shrink_context, nodup_by_sameN, Hn. cbn [AxCheck.ensure].
    assert (TD : forallb (fun b => AxCheck.ty_declared ts (bty b)) (shrink_context codata (fsdctx d)) = true).
    { clear -Hfc. induction (fsdctx d) as [|b r IH]; [reflexivity|]. cbn [forallb] in Hfc. apply andb_true_iff in Hfc as [Hb Hr].
      cbn [shrink_context map forallb]. rewrite (shrink_int codata b Hb). cbn [bty AxCheck.ty_declared andb]. apply IH. exact Hr. }
    rewrite TD. cbn [AxCheck.ensure]. exact T1. }
  split.
  - unfold AxCheck.check_prog. cbn [ptypes pdefs]. fold ts. fold ds'.
    assert (CT : AxCheck.check_types ts = None) by (apply check_types_shrink; assumption).
    rewrite CT.
    assert (ND : AxCheck.nodup_by ident_eqb (map dname ds') = true).
    { unfold ds'. rewrite map_map. cbn [shf_def dname]. rewrite nodup_by_same. exact C4. }
    rewrite ND. cbn [AxCheck.ensure].
    unfold ds' at 2. assert (IN : forall d, In d (fspdefs p) -> In d (fspdefs p)) by auto. revert IN.
    generalize (fspdefs p) at 1 3. induction l as [|d r IH]; intros IN; [reflexivity|]. cbn [map].
    rewrite (proj1 (DEFS d (IN d (or_introl eq_refl)))). apply IH. intros d' H. apply IN. right. exact H.
  - unfold pre_linear_prog. cbn [pdefs]. apply forallb_forall. intros d' Hd'. apply in_map_iff in Hd' as (d & <- & Hd).
    unfold shf_def. cbn [dbody]. exact (proj2 (DEFS d Hd)).
Qed.
Print Assumptions shrink_preserves_typing_frag.
