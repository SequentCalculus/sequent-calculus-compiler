(* C17: the x86-64 back end commutes with the renaming of generated labels ([x86_shift_ok]). *)
From Coq Require Import List ZArith NArith String Ascii Bool Lia.
From SCC Require Import Base.Sexp Lang.AxSyn Model.ParMoves Model.Backend Model.X86 Sem.X86Wf
  Proof.LabelStrings Proof.LabelGen Proof.LabelShift Proof.LabelsX86.
Import ListNotations.
Local Open Scope string_scope.
Local Open Scope list_scope.

(* rename the labels of one instruction (external symbols of CALL / EXTERN / GLOBAL are not labels) *)
Definition xmap (f : string -> string) (c : xcode) : xcode :=
  match c with
  | JMPL l => JMPL (f l) | JMPLN l => JMPLN (f l) | LEAL r l => LEAL r (f l)
  | JEL l => JEL (f l) | JNEL l => JNEL (f l) | JLL l => JLL (f l) | JLEL l => JLEL (f l) | JGL l => JGL (f l) | JGEL l => JGEL (f l)
  | LAB l => LAB (f l)
  | c => c
  end.

Section S.
Variable rho : string -> string.
Variables a b : N.
Notation sh := (sh a b).
Notation rn := (map (xmap rho)).
Notation shp := (shp xmap rho a b).
Notation shr := (shr xmap rho a b).
Hypothesis rho_lab : forall k, (a < k)%N -> rho (lab k) = lab (sh k).

Lemma nolab_fixed i : nolab i = true -> xmap rho i = i.
Proof. destruct i; try discriminate; reflexivity. Qed.
Notation rn_nolab := (rn_nolab xmap rho nolab nolab_fixed).
Notation shr_ok := (shr_ok xmap rho a b).

Lemma sk_sh cond body lc : (a <= lc)%N -> skip_if_zero cond (rn body) (sh lc) = shp (skip_if_zero cond body lc).
Proof.
  intros L. unfold skip_if_zero, LabelShift.shp. cbn [fst snd]. rewrite !map_app, (rn_nolab _ (nl_compare_immediate cond 0)).
  cbn [map xmap]. rewrite rho_lab by lia. rewrite (sh_add a b lc 1 L). reflexivity.
Qed.
Lemma ite_sh cond off th el lc : (a <= lc)%N ->
  if_zero_then_else cond off (rn th) (rn el) (sh lc) = shp (if_zero_then_else cond off th el lc).
Proof.
  intros L. unfold if_zero_then_else, LabelShift.shp. cbn [fst snd]. rewrite !map_app. cbn [map xmap].
  rewrite !rho_lab by lia. rewrite (sh_add a b lc 1 L), (sh_add a b lc 2 L). destruct off; reflexivity.
Qed.

Lemma erase_valid_sh r lc : (a <= lc)%N -> erase_valid_object r (sh lc) = shp (erase_valid_object r lc).
Proof. intros L. unfold erase_valid_object. rewrite <- (ite_sh _ _ _ _ lc L). reflexivity. Qed.
Lemma erase_sh t lc : (a <= lc)%N -> x_erase_block t (sh lc) = shp (x_erase_block t lc).
Proof.
  intros L. destruct t as [r|p]; cbn [x_erase_block].
  - rewrite (erase_valid_sh r lc L). pose proof (labs_mono (erase_valid_ok r lc)) as M.
    destruct (erase_valid_object r lc) as [c lc1]. cbn [LabelShift.shp fst snd] in *. apply sk_sh. lia.
  - rewrite (erase_valid_sh TEMP lc L). pose proof (labs_mono (erase_valid_ok TEMP lc)) as M.
    destruct (erase_valid_object TEMP lc) as [c lc1]. cbn [LabelShift.shp fst snd] in *.
    rewrite (sk_sh (XR TEMP) c lc1) by lia. destruct (skip_if_zero (XR TEMP) c lc1) as [c2 lc2]. reflexivity.
Qed.
Lemma share_sh t n lc : (a <= lc)%N -> x_share_block_n t n (sh lc) = shp (x_share_block_n t n lc).
Proof. intros L. destruct t as [r|p]; cbn [x_share_block_n]; rewrite <- (sk_sh _ _ lc L); reflexivity. Qed.

Lemma erase_fields_sh r : forall l c lc, (a <= lc)%N ->
  fold_left (fun (acc : list xcode * N) (offset : N) =>
               let '(c, lc) := acc in
               let '(c1, lc1) := x_erase_block (XR TEMP) lc in
               (c ++ [MOVL TEMP r (field_offset Fst offset)] ++ c1, lc1)) l (rn c, sh lc)
  = shp (fold_left (fun (acc : list xcode * N) (offset : N) =>
               let '(c, lc) := acc in
               let '(c1, lc1) := x_erase_block (XR TEMP) lc in
               (c ++ [MOVL TEMP r (field_offset Fst offset)] ++ c1, lc1)) l (c, lc)).
Proof.
  induction l as [|o l IH]; intros c lc L; cbn [fold_left]; [reflexivity|].
  rewrite (erase_sh (XR TEMP) lc L). pose proof (labs_mono (erase_ok (XR TEMP) lc)) as M.
  destruct (x_erase_block (XR TEMP) lc) as [c1 lc1]. cbn [LabelShift.shp fst snd] in *.
  rewrite <- IH by lia. rewrite !map_app. reflexivity.
Qed.
Definition acq (pre el : list xcode) (lc : N) : list xcode * N :=
  let '(ef, lc1) := erase_fields HEAP lc in
  let '(inner, lc2) := if_zero_then_else FREE None [MOV FREE HEAP; ADDI FREE (field_offset Fst FIELDS_PER_BLOCK)]
                         ([MOVIM HEAP NEXT_ELEMENT_OFFSET 0] ++ ef) lc1 in
  let '(outer, lc3) := if_zero_then_else HEAP None ([MOV HEAP FREE; MOVL FREE FREE NEXT_ELEMENT_OFFSET] ++ inner) el lc2 in
  (pre ++ outer, lc3).
Lemma acquire_eq t lc :
  acquire_block t lc
  = acq (match t with XR r => [MOV r HEAP] | XS p => [MOV TEMP HEAP; MOVS HEAP STACK (stack_offset p)] end ++ [MOVL HEAP HEAP NEXT_ELEMENT_OFFSET])
        (match t with XR r => [MOVIM r REFERENCE_COUNT_OFFSET 0] | XS _ => [MOVIM TEMP REFERENCE_COUNT_OFFSET 0] end) lc.
Proof. reflexivity. Qed.
Lemma acq_sh pre el lc : (a <= lc)%N -> acq (rn pre) (rn el) (sh lc) = shp (acq pre el lc).
Proof.
  intros L. unfold acq, erase_fields.
  pose proof (erase_fields_sh HEAP (nseq 0 FIELDS_PER_BLOCK) [] lc L) as EF. cbn [map] in EF. rewrite EF.
  pose proof (erase_fields_ok HEAP lc (nseq 0 FIELDS_PER_BLOCK) ([], lc) (nolab_labs lc [] eq_refl)) as M1. apply labs_mono in M1.
  destruct (fold_left _ (nseq 0 FIELDS_PER_BLOCK) ([], lc)) as [ef lc1]. cbn [LabelShift.shp fst snd] in *.
  match goal with |- context [if_zero_then_else FREE None ?th (?p ++ rn ef) (sh lc1)] =>
    change (if_zero_then_else FREE None th (p ++ rn ef) (sh lc1)) with (if_zero_then_else FREE None (rn th) (rn (p ++ ef)) (sh lc1)) end.
  rewrite ite_sh by lia.
  destruct (if_zero_then_else FREE None _ _ lc1) as [inner lc2] eqn:EI.
  assert (M2 : (lc1 <= lc2)%N) by (unfold if_zero_then_else in EI; inversion EI; lia).
  cbn [LabelShift.shp fst snd].
  match goal with |- context [if_zero_then_else HEAP None (?p ++ rn inner) (rn el) (sh lc2)] =>
    change (if_zero_then_else HEAP None (p ++ rn inner) (rn el) (sh lc2)) with (if_zero_then_else HEAP None (rn (p ++ inner)) (rn el) (sh lc2)) end.
  rewrite ite_sh by lia.
  destruct (if_zero_then_else HEAP None _ _ lc2) as [outer lc3]. unfold LabelShift.shp; cbn [fst snd]. rewrite map_app. reflexivity.
Qed.
Lemma acquire_sh t lc : (a <= lc)%N -> acquire_block t (sh lc) = shp (acquire_block t lc).
Proof. intros L. rewrite !acquire_eq, <- (acq_sh _ _ lc L). destruct t; reflexivity. Qed.


Lemma load_value_sh bd ex blk o m lc : (a <= lc)%N -> load_value bd ex blk o m (sh lc) = shr (load_value bd ex blk o m lc).
Proof.
  intros L. unfold load_value. sb. pose proof (rn_nolab _ (nl_load_field _ _ _ _ _ H)) as R1.
  destruct (bchi bd); [| |rewrite shr_ok, R1; reflexivity].
  all: sb; pose proof (rn_nolab _ (nl_load_field _ _ _ _ _ H0)) as R2; sb; destruct m;
    [rewrite shr_ok, map_app, R1, R2; reflexivity|].
  all: rewrite share_sh by exact L; destruct (x_share_block_n _ 1 lc) as [c3 lc1];
    unfold LabelShift.shp; cbn [fst snd]; rewrite shr_ok, !map_app, R1, R2; reflexivity.
Qed.
Lemma load_values_sh ex blk m : forall l ff lc, (a <= lc)%N ->
  load_values l ex blk ff m (sh lc) = shr (load_values l ex blk ff m lc).
Proof.
  induction l as [|bd l IH]; intros ff lc L; cbn [load_values]; [reflexivity|].
  apply (shr_bind xmap rho a b); [apply load_value_sh; exact L|]. intros c1 lc1 E1.
  destruct (load_value_ok _ _ _ _ _ _ _ _ E1) as [L1 _].
  apply (shr_bind xmap rho a b); [apply IH; lia|]. intros c2 lc2 _. rewrite shr_ok, map_app. reflexivity.
Qed.

Lemma store_fields_sh : forall fuel to_store remaining bp lc, (a <= lc)%N ->
  store_fields fuel to_store remaining bp (sh lc) = shr (store_fields fuel to_store remaining bp lc).
Proof.
  induction fuel as [|fuel IH]; intros to_store remaining bp lc L; cbn [store_fields]; [reflexivity|].
  destruct to_store as [|b0 ts].
  - destruct bp; [|reflexivity]. sb. rewrite shr_ok, (rn_nolab _ (nl_load_immediate _ _)). reflexivity.
  - sb. sb. sb. rewrite acquire_sh by exact L. pose proof (labs_mono (acquire_ok x1 lc)) as M.
    destruct (acquire_block x1 lc) as [c2 lc2]. unfold LabelShift.shp; cbn [fst snd] in *.
    apply (shr_bind xmap rho a b); [apply IH; lia|]. intros c3 lc3 _. rewrite shr_ok, !map_app.
    assert (N0 : forallb nolab x = true) by (destruct bp; [inversion H; reflexivity|apply (nl_store_field _ _ _ _ _ H)]).
    rewrite (rn_nolab _ N0), (rn_nolab _ (nl_store_values _ _ _ _ _ H0)). reflexivity.
Qed.

Definition shr3 (r : res (list xcode * bool * N)) : res (list xcode * bool * N) :=
  match r with Ok (c, f, l) => Ok (rn c, f, sh l) | Err m => Err m end.
Lemma load_fields_sh : forall fuel to_load existing bp m freed lc, (a <= lc)%N ->
  load_fields fuel to_load existing bp m freed (sh lc) = shr3 (load_fields fuel to_load existing bp m freed lc).
Proof.
  induction fuel as [|fuel IH]; intros to_load existing bp m freed lc L; cbn [load_fields]; [reflexivity|].
  destruct to_load as [|b0 tl]; [reflexivity|].
  rewrite IH by exact L.
  destruct (load_fields fuel _ existing Other m freed lc) as [[[c0 freed0] lc0]|msg] eqn:E0; cbn [shr3 rbind]; [|reflexivity].
  pose proof (load_fields_ok _ _ _ _ _ _ _ _ _ _ E0) as [L0 _].
  destruct (x_fresh Fst _) as [mb|msg]; cbn [rbind]; [|reflexivity].
  assert (NR : forall r, rn (match m with Release => release_block r | Share => [] end) = match m with Release => release_block r | Share => [] end)
    by (intros r; destruct m; reflexivity).
  destruct mb as [mr|mp].
  - match goal with |- context [rbind ?e _] => destruct e as [c2|msg] eqn:E2 end; cbn [rbind]; [|reflexivity].
    assert (N2 : forallb nolab c2 = true) by (destruct bp; [inversion E2; reflexivity|apply (nl_load_field _ _ _ _ _ E2)]).
    rewrite load_values_sh by lia. destruct (load_values _ _ mr _ m lc0) as [[c3 lc3]|msg]; cbn [LabelShift.shr rbind shr3]; [|reflexivity].
    unfold LabelShift.shp; cbn [fst snd]. rewrite !map_app, NR, (rn_nolab _ N2). reflexivity.
  - match goal with |- context [rbind ?e _] => destruct e as [c2|msg] eqn:E2 end; cbn [rbind]; [|reflexivity].
    assert (N2 : forallb nolab c2 = true) by (destruct bp; [inversion E2; reflexivity|apply (nl_load_field _ _ _ _ _ E2)]).
    rewrite load_values_sh by lia. destruct (load_values _ _ TEMPORARY_TEMP _ m lc0) as [[c3 lc3]|msg]; cbn [LabelShift.shr rbind shr3]; [|reflexivity].
    unfold LabelShift.shp; cbn [fst snd]. rewrite !map_app, NR, (rn_nolab _ N2). destruct freed0, bp; reflexivity.
Qed.

Lemma load_register_sh blk to_load existing lc : (a <= lc)%N ->
  load_register blk to_load existing (sh lc) = shr (load_register blk to_load existing lc).
Proof.
  intros L. unfold load_register. rewrite load_fields_sh by exact L.
  destruct (load_fields _ to_load existing Last Release false lc) as [[[th f1] lc1]|msg] eqn:E1; cbn [shr3 rbind]; [|reflexivity].
  pose proof (load_fields_ok _ _ _ _ _ _ _ _ _ _ E1) as [L1 _].
  rewrite load_fields_sh by lia.
  destruct (load_fields _ to_load existing Last Share false lc1) as [[[eb f2] lc2]|msg] eqn:E2; cbn [shr3 rbind]; [|reflexivity].
  pose proof (load_fields_ok _ _ _ _ _ _ _ _ _ _ E2) as [L2 _].
  cbn [LabelShift.shr]. f_equal.
  match goal with |- if_zero_then_else blk ?o (rn th) (?p ++ rn eb) (sh lc2) = _ =>
    change (if_zero_then_else blk o (rn th) (p ++ rn eb) (sh lc2)) with (if_zero_then_else blk o (rn th) (rn (p ++ eb)) (sh lc2)) end.
  apply ite_sh. lia.
Qed.
Lemma load_sh to_load existing lc : (a <= lc)%N -> x_load to_load existing (sh lc) = shr (x_load to_load existing lc).
Proof.
  intros L. unfold x_load. destruct to_load as [|b0 tl]; [reflexivity|]. sb. destruct x as [r|p].
  - apply load_register_sh. exact L.
  - rewrite load_register_sh by exact L. destruct (load_register TEMP (b0 :: tl) existing lc) as [[c l]|msg]; [|reflexivity].
    cbn [LabelShift.shr rbind]. unfold LabelShift.shp; cbn [fst snd]. rewrite map_app. reflexivity.
Qed.
Lemma store_sh to_store remaining lc : (a <= lc)%N -> x_store to_store remaining (sh lc) = shr (x_store to_store remaining lc).
Proof. intros L. unfold x_store. apply store_fields_sh. exact L. Qed.

Theorem x86_shift_ok : shift_ok x86_backend xmap rho a b.
Proof.
  constructor; cbn [x86_backend x86_backend_with b_label b_mark b_jump b_jump_label b_jump_label_fixed b_jcc2 b_jcc1
    b_load_immediate b_load_label b_add_and_jump b_arith b_mov b_print b_erase b_share_n b_store b_load
    b_store_temporary b_restore_temporary].
  - reflexivity.
  - reflexivity.
  - intros t. apply rn_nolab, nl_jump.
  - reflexivity.
  - reflexivity.
  - intros s x y l. rewrite map_app, (rn_nolab _ (nl_compare x y)). destruct s; reflexivity.
  - intros s x l. rewrite map_app, (rn_nolab _ (nl_compare_immediate x 0)). destruct s; reflexivity.
  - intros t i. apply rn_nolab, nl_load_immediate.
  - intros t l. destruct t; reflexivity.
  - intros t i. apply rn_nolab, nl_add_and_jump.
  - intros o t x y. apply rn_nolab, nl_arith.
  - intros t s. apply rn_nolab, nl_mov.
  - intros n t c. apply rn_nolab, nl_print.
  - intros t f. apply rn_nolab, nl_store_temporary.
  - intros t f. apply rn_nolab, nl_restore_temporary.
  - intros t lc. apply erase_sh.
  - intros t n lc. apply share_sh.
  - intros x y lc. apply store_sh.
  - intros x y lc. apply load_sh.
Qed.
End S.
