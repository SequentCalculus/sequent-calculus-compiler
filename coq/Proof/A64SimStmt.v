(* C07, forward simulation of the AArch64 code generator: what `code_statement` emits for each
   statement of the integer fragment (inversion lemmas), and the statement-level simulation lemmas for
   Literal, Op (defined and undefined results), IfC (both forms), Exit (the move into X0), Substitute
   (any mix of integers and closures) and PrintI64, for EVERY context (any number of variables, in
   registers - X30 included - and spill slots, any aliasing of operands).  They are compositions of the
   selection lemmas of Proof/A64Sel.v, of the parallel-move theorem (Proof/A64PM.v, A64Subst.v), of the
   reference-count theorems (Proof/A64MemSubst.v, A64Subst.v) and of the print theorem (Proof/A64Print.v)
   with the state relation of Proof/A64SimRel.v; nothing is re-proved.  Mirrors Proof/X86SimStmt.v. *)
From Coq Require Import List ZArith NArith String Bool Lia FMapPositive.
From SCC Require Import Base.Sexp Lang.AxSyn Sem.AxSem Model.ParMoves Model.Backend Model.A64 Sem.A64Sem
     Model.LinCheck Proof.LinBasics Proof.A64State Proof.A64Imm Proof.A64Sel Proof.A64PM Proof.A64Exec
     Proof.SubstGraph Proof.SubstBackends Proof.A64Subst Proof.A64Print Proof.A64SimRel.
From SCC Require Proof.LabelGen Proof.BackendInv.
Import ListNotations.
Open Scope Z_scope.
Open Scope list_scope.

(* one step of the result monad: [inv_bind H x E] turns H : (dor x <- e; k x) = Ok v into E : e = Ok x and H : k x = Ok v *)
Tactic Notation "inv_bind" hyp(H) simple_intropattern(x) ident(E) := apply LabelGen.rbind_inv in H as (x & E & H).
(* what code_statement emits, statement form by statement form: the lemmas of Proof/BackendInv.v at a64_backend, whose mark is empty *)
Lemma cs_literal types n v next c lc code lc' :
  acs types (Literal n v next) c lc = Ok (code, lc') ->
  exists tv c2, avt (c ++ [mkb v Ext I64]) (idn v) = Ok tv /\
    acs types next (c ++ [mkb v Ext I64]) lc = Ok (c2, lc') /\
    code = a_load_immediate tv n ++ c2.
Proof. exact (BackendInv.cs_literal a64_backend types n v next c lc code lc'). Qed.

Lemma cs_op types a o b v next c lc code lc' :
  acs types (Op a o b v next) c lc = Ok (code, lc') ->
  exists tv ta tb c2, avt (c ++ [mkb v Ext I64]) (idn v) = Ok tv /\
    avt (c ++ [mkb v Ext I64]) (idn a) = Ok ta /\ avt (c ++ [mkb v Ext I64]) (idn b) = Ok tb /\
    acs types next (c ++ [mkb v Ext I64]) lc = Ok (c2, lc') /\
    code = a_arith o tv ta tb ++ c2.
Proof. exact (BackendInv.cs_op a64_backend types a o b v next c lc code lc'). Qed.

Lemma cs_print types nl v next c lc code lc' :
  acs types (PrintI64 nl v next) c lc = Ok (code, lc') ->
  exists tv c2, avt c (idn v) = Ok tv /\ acs types next c lc = Ok (c2, lc') /\ code = a_print nl tv c ++ c2.
Proof. exact (BackendInv.cs_print a64_backend types nl v next c lc code lc'). Qed.

Lemma cs_exit types v c lc code lc' :
  acs types (Exit v) c lc = Ok (code, lc') ->
  exists tv, avt c (idn v) = Ok tv /\ code = a_mov (AR RETURN1) tv ++ [B "cleanup"] /\ lc' = lc.
Proof. exact (BackendInv.cs_exit a64_backend types v c lc code lc'). Qed.

Lemma cs_call types l args c lc code lc' :
  acs types (Call l args) c lc = Ok (code, lc') -> code = [B (show_ident l +++ "_")] /\ lc' = lc.
Proof. exact (BackendInv.cs_call a64_backend types l args c lc code lc'). Qed.

Definition iflabel (lc : N) : string := "lab" +++ n_to_string (lc + 1)%N.
Lemma cs_ifc types so a b thenc elsec c lc code lc' :
  acs types (IfC so a b thenc elsec) c lc = Ok (code, lc') ->
  exists ta c1 c2 lc2 c3, avt c (idn a) = Ok ta /\
    match b with
    | None => c1 = compare_immediate ta 0 ++ [bcc so (iflabel lc)]
    | Some b => exists tb, avt c (idn b) = Ok tb /\ c1 = compare ta tb ++ [bcc so (iflabel lc)]
    end /\
    acs types elsec c (lc + 1)%N = Ok (c2, lc2) /\ acs types thenc c lc2 = Ok (c3, lc') /\
    code = c1 ++ c2 ++ [LAB (iflabel lc)] ++ c3.
Proof. exact (BackendInv.cs_ifc a64_backend types so a b thenc elsec c lc code lc'). Qed.

Lemma cs_substitute types re next c lc code lc' :
  acs types (Substitute re next) c lc = Ok (code, lc') ->
  exists c1 lc1 c2 c3,
    code_weakening_contraction a64_backend (transpose re c) c lc = Ok (c1, lc1) /\
    code_exchange a64_backend (transpose re c) c (map fst re) = Ok c2 /\
    acs types next (map fst re) lc1 = Ok (c3, lc') /\ code = c1 ++ c2 ++ c3.
Proof. exact (BackendInv.cs_substitute a64_backend types re next c lc code lc'). Qed.

Definition lok (t : atemp) : bool := match t with AR r => nsp r | AS p => slot_off (stack_offset p) end.
Lemma loc_ok_lok t : loc_ok t -> lok t = true.
Proof.
  destruct t as [r|p]; cbn [loc_ok lok]; intros H.
  - destruct r; cbn in *; tauto.
  - now apply slot_off_stack_offset.
Qed.
Lemma slot0_off : slot_off (stack_offset SPILL_TEMP) = true.
Proof. reflexivity. Qed.

Lemma local_move_to_register r t : nsp r = true -> local_code (move_to_register r t) = true.
Proof. intros H; destruct t; cbn [move_to_register local_code forallb local_instr]; now rewrite H. Qed.
Lemma local_move_from_register t r : lok t = true -> local_code (move_from_register t r) = true.
Proof. intros H; destruct t; cbn [move_from_register local_code forallb local_instr lok] in *; now rewrite H. Qed.
Lemma local_a_mov t s : lok t = true -> local_code (a_mov t s) = true.
Proof.
  intros H. unfold a_mov. destruct s as [sr|sp]; [apply local_move_from_register; exact H|].
  destruct t as [tr|tp]; [apply local_move_to_register; exact H|].
  rewrite local_code_app, local_move_to_register, local_move_from_register by (exact H || reflexivity). reflexivity.
Qed.
Lemma local_imm_pieces r v inv ign : nsp r = true -> forall is fd, local_code (imm_pieces r v inv ign fd is) = true.
Proof.
  intros H. induction is as [|i is IH]; intros fd; cbn [imm_pieces]; [reflexivity|].
  destruct (_ =? ign); [apply IH|]. destruct fd; [|destruct inv]; cbn [local_code forallb local_instr]; rewrite H; apply IH.
Qed.
Lemma local_imm_code r v : nsp r = true -> local_code (imm_code r v) = true.
Proof.
  intros H. unfold imm_code. destruct (v =? 0); [cbn; now rewrite H|]. destruct (v =? -1); [cbn; now rewrite H|].
  apply local_imm_pieces; exact H.
Qed.
Lemma local_load_immediate t i : lok t = true -> local_code (a_load_immediate t i) = true.
Proof.
  intros H; destruct t as [r|p]; unfold a_load_immediate; [apply local_imm_code; exact H|].
  rewrite local_code_app, local_imm_code by reflexivity. cbn [local_code forallb local_instr lok] in *. now rewrite H.
Qed.
Lemma local_load_label t l : lok t = true -> local_code (a_load_label t l) = true.
Proof. intros H; destruct t as [r|p]; cbn [a_load_label local_code forallb local_instr lok] in *; now rewrite H. Qed.
Lemma local_compare a b : local_code (compare a b) = true.
Proof. destruct a, b; reflexivity. Qed.
Lemma local_compare_immediate a i : local_code (compare_immediate a i) = true.
Proof. destruct a; reflexivity. Qed.
Lemma local_bcc so l : local_instr (bcc so l) = true.
Proof. destruct so; reflexivity. Qed.
Lemma local_r_rem d a b : nsp d = true -> local_code (r_rem d a b) = true.
Proof.
  intros H. unfold r_rem. destruct (areg_eqb b TEMP2); [destruct (areg_eqb d TEMP)|];
    cbn [local_code forallb local_instr]; rewrite ?H, ?slot0_off; reflexivity.
Qed.
Lemma local_a_op f t s1 s2 :
  (forall d a b, nsp d = true -> local_code (f d a b) = true) -> lok t = true -> local_code (a_op f t s1 s2) = true.
Proof.
  intros Hf H. unfold a_op. destruct t as [tr|tp]; cbn [lok] in H.
  - destruct s1, s2; rewrite ?local_code_app, ?Hf by exact H; try reflexivity.
    unfold scratch_for. destruct (areg_eqb _ _); reflexivity.
  - rewrite local_code_app. cbn [local_code forallb local_instr]. rewrite H, andb_true_r.
    destruct s1, s2; rewrite ?local_code_app, ?Hf by reflexivity; try reflexivity.
    unfold scratch_for. destruct (areg_eqb _ _); reflexivity.
Qed.
Lemma local_a_arith o t s1 s2 : lok t = true -> local_code (a_arith o t s1 s2) = true.
Proof.
  intros H. destruct o; cbn [a_arith]; apply local_a_op; auto; intros d a b Hd; try apply local_r_rem; auto;
    cbn; now rewrite Hd.
Qed.

(* in the integer fragment no reference count is touched *)
Lemma cwc_int tm c : forall lc,
  (forall b tg, In (b, tg) tm -> bchi b = Ext) -> code_weakening_contraction a64_backend tm c lc = Ok ([], lc).
Proof.
  induction tm as [|[b tg] tm IH]; intros lc H; cbn [code_weakening_contraction]; [reflexivity|].
  rewrite (H b tg (or_introl eq_refl)). apply IH. intros b' tg' Hin. apply (H b' tg'). now right.
Qed.
Lemma cwc_ctx_int c re lc : ctx_int c = true -> NoDup (ids c) ->
  code_weakening_contraction a64_backend (transpose re c) c lc = Ok ([], lc).
Proof.
  intros CI ND. apply cwc_int. intros b tg Hin.
  apply (In_transpose re c b tg (NoDup_map_inv _ _ ND)) in Hin as (Hin & _).
  apply In_nth_error in Hin as (i & Hi). apply (ctx_int_nth c i b CI Hi).
Qed.

(* the labels of the reference-count code are branch labels `lab<n>` *)
Lemma nh_lab n : hash_name (lab n) = false. Proof. reflexivity. Qed.
Ltac nh_tac :=
  repeat first [ apply Forall_nil | apply Forall_cons; [first [exact I | apply nh_lab | reflexivity]|]
               | apply nh_labels_app ].
Lemma nh_skip_if_zero t body lc : nh_labels body -> nh_labels (fst (skip_if_zero t body lc)).
Proof. intros H. unfold skip_if_zero. cbn [fst]. nh_tac; auto. Qed.
Lemma nh_if_zero_then_else r tb eb lc : nh_labels tb -> nh_labels eb -> nh_labels (fst (if_zero_then_else r tb eb lc)).
Proof. intros H1 H2. unfold if_zero_then_else. cbn [fst]. nh_tac; auto. Qed.
Lemma nh_erase_valid r lc : nh_labels (fst (erase_valid_object r lc)).
Proof. unfold erase_valid_object. apply nh_if_zero_then_else; nh_tac. Qed.
Lemma nh_erase t lc : nh_labels (fst (a_erase_block t lc)).
Proof.
  unfold a_erase_block. destruct t as [r|p].
  - pose proof (nh_erase_valid r lc) as H. destruct (erase_valid_object r lc) as [c lc1]. cbn [fst] in H.
    apply nh_skip_if_zero. nh_tac. exact H.
  - pose proof (nh_erase_valid TEMP lc) as H. destruct (erase_valid_object TEMP lc) as [c lc1]. cbn [fst] in H.
    pose proof (nh_skip_if_zero TEMP ([LDR TEMP2 TEMP REFERENCE_COUNT_OFFSET] ++ c) lc1) as H2.
    destruct (skip_if_zero TEMP _ lc1) as [c2 lc2]. cbn [fst] in *. nh_tac. apply H2. nh_tac. exact H.
Qed.
Lemma nh_share t n lc : nh_labels (fst (a_share_block_n t n lc)).
Proof.
  unfold a_share_block_n. destruct t as [r|p].
  - apply nh_skip_if_zero. unfold share_code. nh_tac.
  - pose proof (nh_skip_if_zero TEMP (share_code TEMP n) lc) as H. destruct (skip_if_zero TEMP _ lc) as [c lc1].
    cbn [fst] in *. nh_tac. apply H. unfold share_code. nh_tac.
Qed.
Lemma nh_emit_rc : forall ops lc, nh_labels (fst (emit_rc a64_backend ops lc)).
Proof.
  induction ops as [|o ops IH]; intros lc; cbn [emit_rc]; [constructor|].
  destruct (emit_rc_op a64_backend o lc) as [c1 lc1] eqn:E1. destruct (emit_rc a64_backend ops lc1) as [c2 lc2] eqn:E2.
  cbn [fst]. apply nh_labels_app.
  - replace c1 with (fst (emit_rc_op a64_backend o lc)) by (now rewrite E1).
    destruct o; cbn [emit_rc_op b_erase b_share_n a64_backend a64_backend_with]; [apply nh_erase|apply nh_share].
  - replace c2 with (fst (emit_rc a64_backend ops lc1)) by (now rewrite E2). apply IH.
Qed.

Lemma return1_operand : operand_ok (AR RETURN1).
Proof. change RETURN1 with (X 0). unfold operand_ok. change TEMP with (X 2). change TEMP2 with (X 3). repeat split; try exact I; congruence. Qed.

Lemma fold_left_id {A B} (f : A -> B -> A) l : (forall x, In x l -> forall a, f a x = a) -> forall a, fold_left f l a = a.
Proof. induction l as [|x l IH]; intros H a; cbn [fold_left]; [reflexivity|]. rewrite (H x (or_introl eq_refl)). apply IH. intros y Hy. apply H. now right. Qed.

Section Sim.
Variable im : image.
Variable CL : Z -> ident -> list clause -> Prop.
Local Notation rel := (rel CL).

Lemma vt_fresh c v t :
  NoDup (ids (c ++ [mkb v Ext I64])) -> avt (c ++ [mkb v Ext I64]) (idn v) = Ok t -> atpos Snd (List.length c) = Ok t.
Proof.
  intros ND H. rewrite <- H. symmetry. change (idn v) with (idn (bvar (mkb v Ext I64))).
  apply vt_tpos; auto. apply nth_error_mid.
Qed.

(* Literal: MOVZ/MOVN/MOVK synthesis of any 64-bit value, into a register or a spill slot *)
Theorem sim_literal c e s sp n v tv :
  rel c e s sp -> NoDup (ids (c ++ [mkb v Ext I64])) -> in64 n ->
  avt (c ++ [mkb v Ext I64]) (idn v) = Ok tv ->
  exists s', run_straight im (a_load_immediate tv n) s = MOk s' /\
             rel (c ++ [mkb v Ext I64]) (e ++ [(v, VInt n)]) s' sp /\ frame_eq s s' sp.
Proof.
  intros R ND IN TV. apply (vt_fresh c v tv ND) in TV.
  destruct (atpos_ok _ _ _ TV) as ((O & _) & _).
  destruct (a64_load_immediate_ok im s sp tv n (rel_frame R) O IN) as (s' & E & V & P).
  exists s'. split; [exact E|]. split; [eapply rel_push; eauto using preserved_weaken|].
  exact (proj2 (run_straight_local im _ s sp s' (local_load_immediate tv n (loc_ok_lok tv (proj1 O))) (rel_frame R) E)).
Qed.

Lemma op_temps c e s sp a b v x y tv ta tb :
  rel c e s sp -> NoDup (ids (c ++ [mkb v Ext I64])) ->
  lookup_int e a = Some x -> lookup_int e b = Some y ->
  avt (c ++ [mkb v Ext I64]) (idn v) = Ok tv ->
  avt (c ++ [mkb v Ext I64]) (idn a) = Ok ta -> avt (c ++ [mkb v Ext I64]) (idn b) = Ok tb ->
  atpos Snd (List.length c) = Ok tv /\ rem_operand_ok tv /\ rem_operand_ok ta /\ rem_operand_ok tb /\
  ta <> AR TEMPORARY_TEMP /\ lget s sp ta = Some x /\ lget s sp tb = Some y /\ in64 x /\ in64 y.
Proof.
  intros R ND LA LB TV TA TB. apply (vt_fresh c v tv ND) in TV.
  destruct (rel_operand CL c _ e s sp a x ta R ND LA TA) as (i & bi & Hi & Ti & Vi & Ii).
  destruct (rel_operand CL c _ e s sp b y tb R ND LB TB) as (j & bj & Hj & Tj & Vj & Ij).
  destruct (atpos_ok _ _ _ TV) as (O0 & _). destruct (atpos_ok _ _ _ Ti) as (O1 & _). destruct (atpos_ok _ _ _ Tj) as (O2 & _).
  repeat (split; [assumption|]). split; [|auto].
  destruct (atpos_shape _ _ _ Ti) as [(_ & ->)|(_ & q & -> & _)]; [|discriminate].
  change TEMPORARY_TEMP with (X 10). cbn [tnum_n]. intros E. assert (Q : (2 * N.of_nat i + 1 + 4 = 10)%N) by congruence. lia.
Qed.

Theorem sim_op c e s sp a o b v x y z tv ta tb :
  rel c e s sp -> NoDup (ids (c ++ [mkb v Ext I64])) ->
  lookup_int e a = Some x -> lookup_int e b = Some y -> eval_op o x y = OpVal z ->
  avt (c ++ [mkb v Ext I64]) (idn v) = Ok tv ->
  avt (c ++ [mkb v Ext I64]) (idn a) = Ok ta -> avt (c ++ [mkb v Ext I64]) (idn b) = Ok tb ->
  exists s', run_straight im (a_arith o tv ta tb) s = MOk s' /\
             rel (c ++ [mkb v Ext I64]) (e ++ [(v, VInt z)]) s' sp /\ frame_eq s s' sp.
Proof.
  intros R ND LA LB EV TV TA TB.
  destruct (op_temps c e s sp a b v x y tv ta tb R ND LA LB TV TA TB) as (TV' & O0 & O1 & O2 & _ & VA & VB & IA & IB).
  destruct (a64_arith_ok im o s sp tv ta tb x y z (rel_frame R) O0 O1 O2 VA VB IA EV) as (s' & E & V & P).
  exists s'. split; [exact E|]. split; [eapply rel_push; eauto using in64_eval_op|].
  exact (proj2 (run_straight_local im _ s sp s' (local_a_arith o tv ta tb (loc_ok_lok tv (proj1 (proj1 O0)))) (rel_frame R) E)).
Qed.

(* the undefined cases of div and rem: the code runs into the SDIV that reports them *)
Fixpoint exec_undef (cs : list acode) (s : astate) : option (string * astate) :=
  match cs with
  | [] => None
  | c :: r => match step im c s with
              | Next s' => exec_undef r s'
              | Undefd w s' => Some (w, s')
              | _ => None
              end
  end.
Lemma exec_undef_app a b : forall s s',
  run_straight im a s = MOk s' -> exec_undef (a ++ b) s = exec_undef b s'.
Proof.
  induction a as [|c a IH]; intros s s' E; cbn [app run_straight exec_undef] in *; [now inversion E|].
  destruct (step im c s) eqn:St; try discriminate. now apply IH.
Qed.
Lemma exec_undef_app_l a b : forall s r, exec_undef a s = Some r -> exec_undef (a ++ b) s = Some r.
Proof.
  induction a as [|c a IH]; intros s r E; cbn [app exec_undef] in *; [discriminate|].
  destruct (step im c s) eqn:St; try discriminate; auto.
Qed.
Lemma exec_undef_finishes pc : forall cs s w s',
  code_at im pc cs -> exec_undef cs s = Some (w, s') -> finishes im pc s (finish (out s') (OUndef w)).
Proof.
  intros cs. revert pc. induction cs as [|c cs IH]; intros pc s w s' CA E; cbn in E; [discriminate|].
  apply code_at_cons in CA as [C0 C1]. destruct (step im c s) as [s1| | | |w1 s1] eqn:St; try discriminate.
  - eapply exec_to_finishes; [eapply exec_next; [exact C0|exact St|apply exec_refl]|]. eapply IH; eauto.
  - inversion E; subst. eapply finishes_undef; eauto.
Qed.

Definition undef_of (a b : Z) : opres :=
  if Z.eqb b 0 then OpUndef "div0" else if Z.eqb a min_int && Z.eqb b (-1) then OpUndef "overflow" else OpVal 0.
Lemma step_SDIV_undef s d ra rb a b w :
  rget s ra = Some a -> rget s rb = Some b -> undef_of a b = OpUndef w -> step im (SDIV d ra rb) s = Undefd w s.
Proof.
  intros A Bv W. cbn [step]. unfold need. rewrite A, Bv. unfold undef_of in W.
  destruct (b =? 0); [inversion W; reflexivity|]. destruct ((a =? min_int) && (b =? -1)); [inversion W; reflexivity|discriminate].
Qed.

(* what a division core does on operand REGISTERS holding a and b *)
Definition core_undef (f : areg -> areg -> areg -> list acode) (sp : Z) (a b : Z) (w : string) : Prop :=
  forall s0 d ra rb, frame_ok s0 sp -> rget s0 ra = Some a -> rget s0 rb = Some b -> ra <> TEMPORARY_TEMP ->
    exists s', exec_undef (f d ra rb) s0 = Some (w, s') /\ out s' = out s0.
Lemma r_div_undef sp a b w : undef_of a b = OpUndef w -> core_undef r_div sp a b w.
Proof.
  intros W s0 d ra rb F A Bv _. exists s0. cbn [r_div exec_undef]. rewrite (step_SDIV_undef s0 d ra rb a b w A Bv W). auto.
Qed.
Lemma r_rem_undef sp a b w : undef_of a b = OpUndef w -> core_undef r_rem sp a b w.
Proof.
  intros W s0 d ra rb F A Bv NA. unfold r_rem.
  destruct (areg_eqb rb TEMP2); [destruct (areg_eqb d TEMP)|].
  - assert (P0 : slot_ok SPILL_TEMP) by (unfold slot_ok; rewrite SPILL_NUM_is, SPILL_TEMP_is; lia).
    cbn [exec_undef]. rewrite (step_STR_slot im s0 sp F) by exact P0. rewrite step_MOVR.
    set (s1 := rset (sset s0 sp SPILL_TEMP (rget s0 TEMPORARY_TEMP)) TEMPORARY_TEMP (rget (sset s0 sp SPILL_TEMP (rget s0 TEMPORARY_TEMP)) rb)).
    rewrite (step_SDIV_undef s1 TEMP2 ra TEMPORARY_TEMP a b w); [eexists; split; [reflexivity|]| | |exact W].
    + unfold s1. rewrite out_rset. reflexivity.
    + unfold s1. rewrite rget_rset_other by congruence. rewrite rget_sset. exact A.
    + unfold s1. rewrite TEMPORARY_TEMP_is, rget_rset_same by exact I. rewrite rget_sset. exact Bv.
  - exists s0. cbn [exec_undef]. rewrite (step_SDIV_undef s0 d ra rb a b w A Bv W). auto.
  - exists s0. cbn [exec_undef]. rewrite (step_SDIV_undef s0 TEMP2 ra rb a b w A Bv W). auto.
Qed.

Lemma a_op_undef f s sp t s1 s2 a b w :
  core_undef f sp a b w ->
  frame_ok s sp -> operand_ok s1 -> operand_ok s2 -> s1 <> AR TEMPORARY_TEMP ->
  lget s sp s1 = Some a -> lget s sp s2 = Some b ->
  exists s', exec_undef (a_op f t s1 s2) s = Some (w, s') /\ out s' = out s.
Proof.
  intros Hf F (S1 & _) (S2 & N21 & _) NX A Bv.
  destruct (operands_load_ok im s sp s1 s2 a b F S1 S2 N21 A Bv) as (s0 & E0 & VA & VB & P0).
  destruct (Hf s0 (operand_reg TEMP t) (operand_reg TEMP s1) (operand_reg (second_scratch s1) s2)) as (s' & E & O);
    [exact (same_except_frame _ _ _ _ P0)|exact VA|exact VB| |].
  { destruct (operand_reg_cases TEMP s1) as [E|E]; [congruence|rewrite E; discriminate]. }
  exists s'. split; [|rewrite O; apply P0].
  rewrite a_op_shape. apply exec_undef_app_l. rewrite (exec_undef_app _ _ _ _ E0). exact E.
Qed.

Theorem sim_op_undef c e s sp a o b v x y w tv ta tb :
  rel c e s sp -> NoDup (ids (c ++ [mkb v Ext I64])) ->
  lookup_int e a = Some x -> lookup_int e b = Some y -> eval_op o x y = OpUndef w ->
  avt (c ++ [mkb v Ext I64]) (idn v) = Ok tv ->
  avt (c ++ [mkb v Ext I64]) (idn a) = Ok ta -> avt (c ++ [mkb v Ext I64]) (idn b) = Ok tb ->
  exists s', exec_undef (a_arith o tv ta tb) s = Some (w, s') /\ out s' = out s.
Proof.
  intros R ND LA LB EV TV TA TB.
  destruct (op_temps c e s sp a b v x y tv ta tb R ND LA LB TV TA TB) as (TV' & O0 & (O1 & _) & (O2 & _) & NX & VA & VB & IA & IB).
  assert (F : frame_ok s sp) by exact (rel_frame R).
  destruct o; cbn [eval_op a_arith] in *; try discriminate.
  - apply (a_op_undef r_div s sp tv ta tb x y w); auto. apply r_div_undef. unfold undef_of.
    destruct (y =? 0); [exact EV|]. destruct ((x =? min_int) && (y =? -1)); [exact EV|discriminate].
  - apply (a_op_undef r_rem s sp tv ta tb x y w); auto. apply r_rem_undef. unfold undef_of.
    destruct (y =? 0); [exact EV|]. destruct ((x =? min_int) && (y =? -1)); [exact EV|discriminate].
Qed.

Lemma flags_preserving_rel c e s s' sp : rel c e s sp -> flags_preserving s s' sp -> rel c e s' sp.
Proof.
  intros R (K & _ & _ & F'). apply (rel_keep CL c e s s' sp R F').
  - destruct free_operand as (A & B & C & _). apply (K (AR FREE)); auto.
  - intros k b0 n t _ _ Hk. destruct (atpos_ok _ _ _ Hk) as (((A & B & C) & _) & _). now apply K.
Qed.

(* IfC: the comparison (CMP sets NZCV), then the conditional branch *)
Theorem sim_compare2 c e s sp a b x y ta tb :
  rel c e s sp -> lookup_int e a = Some x -> lookup_int e b = Some y ->
  avt c (idn a) = Ok ta -> avt c (idn b) = Ok tb ->
  exists s', run_straight im (compare ta tb) s = MOk s' /\ flags s' = Some (cmp_flags x y) /\ in64 x /\ in64 y /\
             rel c e s' sp /\ frame_eq s s' sp.
Proof.
  intros R LA LB TA TB.
  destruct (rel_operand0 CL c e s sp a x ta R LA TA) as (i & bi & Hi & Ti & Vi & Ii).
  destruct (rel_operand0 CL c e s sp b y tb R LB TB) as (j & bj & Hj & Tj & Vj & Ij).
  destruct (atpos_ok _ _ _ Ti) as ((O1 & _) & _). destruct (atpos_ok _ _ _ Tj) as ((O2 & _) & _).
  destruct (a64_compare_ok im s sp ta tb x y (rel_frame R) O1 O2 Vi Vj) as (s' & E & FL & FP).
  exists s'. split; [exact E|]. split; [exact FL|]. split; [exact Ii|]. split; [exact Ij|].
  split; [eapply flags_preserving_rel; eauto|].
  exact (proj2 (run_straight_local im _ s sp s' (local_compare ta tb) (rel_frame R) E)).
Qed.
Theorem sim_compare1 c e s sp a x ta :
  rel c e s sp -> lookup_int e a = Some x -> avt c (idn a) = Ok ta ->
  exists s', run_straight im (compare_immediate ta 0) s = MOk s' /\ flags s' = Some (cmp_flags x 0) /\ in64 x /\
             rel c e s' sp /\ frame_eq s s' sp.
Proof.
  intros R LA TA.
  destruct (rel_operand0 CL c e s sp a x ta R LA TA) as (i & bi & Hi & Ti & Vi & Ii).
  destruct (atpos_ok _ _ _ Ti) as ((O1 & _) & _).
  destruct (a64_compare_zero_ok im s sp ta x (rel_frame R) O1 Vi) as (s' & E & FL & FP).
  exists s'. split; [exact E|]. split; [exact FL|]. split; [exact Ii|].
  split; [eapply flags_preserving_rel; eauto|].
  exact (proj2 (run_straight_local im _ s sp s' (local_compare_immediate ta 0) (rel_frame R) E)).
Qed.

Lemma in64_0 : in64 0. Proof. unfold in64, two63. lia. Qed.

(* the whole conditional inside an image: control reaches the first instruction of the branch the
   AxCut machine takes (the else branch follows the B.cond, the then branch follows the label) *)
Theorem sim_ifc c e s sp so a b x y types thenc elsec lc code lc' pc :
  rel c e s sp -> lookup_int e a = Some x ->
  match b with Some b => lookup_int e b | None => Some 0 end = Some y ->
  acs types (IfC so a b thenc elsec) c lc = Ok (code, lc') ->
  code_at im pc code -> labels_at_nh im pc code ->
  exists c1 c2 lc2 c3 s',
    code = c1 ++ c2 ++ [LAB (iflabel lc)] ++ c3 /\
    acs types elsec c (lc + 1)%N = Ok (c2, lc2) /\ acs types thenc c lc2 = Ok (c3, lc') /\
    exec_to im pc s (if eval_cmp so x y then padd pc (List.length c1 + List.length c2 + 1)
                     else padd pc (List.length c1)) s' /\
    rel c e s' sp /\ frame_eq s s' sp.
Proof.
  intros R LA LB CS CA LBL.
  destruct (cs_ifc _ _ _ _ _ _ _ _ _ _ CS) as (ta & c1 & c2 & lc2 & c3 & TA & C1 & EL & TH & ->).
  exists c1, c2, lc2, c3.
  assert (PRE : exists pre s1, c1 = pre ++ [bcc so (iflabel lc)] /\ run_straight im pre s = MOk s1 /\
                               flags s1 = Some (cmp_flags x y) /\ in64 x /\ in64 y /\ rel c e s1 sp /\ frame_eq s s1 sp).
  { destruct b as [b|].
    - destruct C1 as (tb & TB & ->).
      destruct (sim_compare2 c e s sp a b x y ta tb R LA LB TA TB) as (s1 & E & FL & IX & IY & R1 & FE). eauto 10.
    - inversion LB; subst y. destruct (sim_compare1 c e s sp a x ta R LA TA) as (s1 & E & FL & IX & R1 & FE).
      exists (compare_immediate ta 0), s1. repeat (split; [first [reflexivity|assumption|exact in64_0]|]). exact FE. }
  destruct PRE as (pre & s1 & -> & E & FL & IX & IY & R1 & FE).
  pose proof CA as CA'. rewrite <- app_assoc in CA'. apply code_at_app in CA' as [CApre CArest].
  pose proof (run_straight_exec_to im pre pc s s1 CApre E) as X1.
  assert (CJ : PM.find (padd pc (List.length pre)) (code im) = Some (bcc so (iflabel lc))).
  { cbn [app] in CArest. apply code_at_cons in CArest as [C0 _]. exact C0. }
  assert (LL : nth_error ((pre ++ [bcc so (iflabel lc)]) ++ c2 ++ [LAB (iflabel lc)] ++ c3)
                         (List.length (pre ++ [bcc so (iflabel lc)]) + List.length c2) = Some (LAB (iflabel lc))).
  { rewrite nth_error_app2 by lia. rewrite nth_error_app2 by lia.
    replace (_ + _ - _ - _)%nat with O by lia. reflexivity. }
  exists s1. split; [reflexivity|]. split; [exact EL|]. split; [exact TH|]. split; [|split; [exact R1|exact FE]].
  pose proof (a64_bcc_step im so (iflabel lc) s1 x y FL IX IY) as ST.
  rewrite app_length. cbn [List.length].
  destruct (eval_cmp so x y).
  - rewrite (goto_label_at im pc _ _ _ s1 LBL LL eq_refl) in ST.
    eapply exec_to_trans; [exact X1|].
    eapply exec_jump; [exact CJ|exact ST|].
    eapply exec_next; [apply (code_at_nth im pc _ _ _ CA LL)|reflexivity|].
    rewrite <- padd_succ. rewrite app_length. cbn [List.length].
    replace (S (List.length pre + 1 + List.length c2)) with (List.length pre + 1 + List.length c2 + 1)%nat by lia.
    apply exec_refl.
  - eapply exec_to_trans; [exact X1|].
    eapply exec_next; [exact CJ|exact ST|]. rewrite <- padd_succ.
    replace (S (List.length pre)) with (List.length pre + 1)%nat by lia. apply exec_refl.
Qed.

(* Exit: the result reaches X0, then control goes to `cleanup` *)
Theorem sim_exit_mov c e s sp v z tv :
  rel c e s sp -> lookup_int e v = Some z -> avt c (idn v) = Ok tv ->
  exists s', run_straight im (a_mov (AR RETURN1) tv) s = MOk s' /\ rget s' RETURN1 = Some z /\
             frame_ok s' sp /\ frame_eq s s' sp.
Proof.
  intros R LV TV.
  destruct (rel_operand0 CL c e s sp v z tv R LV TV) as (i & bi & Hi & Ti & Vi & Ii).
  destruct (atpos_ok _ _ _ Ti) as ((O1 & _) & _).
  destruct (a64_mov_ok im s sp (AR RETURN1) tv (rel_frame R) return1_operand O1) as (s' & E & V & P).
  exists s'. split; [exact E|]. split; [cbn [lget] in V; congruence|].
  exact (run_straight_local im _ s sp s' (local_a_mov (AR RETURN1) tv eq_refl) (rel_frame R) E).
Qed.
(* the temporaries of a source position and of a new position it is assigned to are defined and
   joined by an edge of the move graph, because the moves were emitted *)
Lemma subst_edge c re am n i bi j pj :
  NoDup (ids c) -> NoDup (new_ids re) ->
  connections a64_backend (transpose re c) c (map fst re) = Ok am ->
  nth_error c i = Some bi -> allowed n bi -> nth_error re j = Some pj -> idn (snd pj) = idn (bvar bi) ->
  exists ta tb, atpos n i = Ok ta /\ atpos n j = Ok tb /\ edge atemp a64_teqb am ta tb.
Proof.
  intros NDc NDn CN Hbi AL Hre EQ.
  destruct (all_ok a64_backend a64_backend_ok c re am NDc NDn CN n i bi Hbi AL) as (a & ts & K & _).
  pose proof (connections_edges a64_backend a64_backend_ok c re am NDc NDn CN) as EDG.
  unfold op_kv in K. rewrite (vt_tpos a64_backend n c i bi NDc Hbi) in K.
  destruct (atpos n i) as [ta|] eqn:TA; cbn [rbind] in K; [|discriminate].
  destruct (rmap _ (targets re bi)) as [ts0|] eqn:RM; cbn [rbind] in K; [|discriminate].
  apply rmap_Forall2 in RM.
  assert (In (idn (bvar (fst pj))) (targets re bi)) as I.
  { unfold targets. apply in_map_iff. exists pj. split; auto. apply filter_In. split.
    - eapply nth_error_In; eauto.
    - apply N.eqb_eq. congruence. }
  destruct (Forall2_In_l _ _ _ _ RM I) as (tb & _ & Vy). cbn beta in Vy.
  rewrite (vt_tpos_new a64_backend n re j pj NDn Hre) in Vy.
  exists ta, tb. split; [reflexivity|]. split; [exact Vy|]. apply EDG. exists i, j, bi, pj, n. repeat split; auto.
Qed.

(* Substitute, any mix of integer and closure variables: the reference-count code (one skipped
   erase / share per closure variable that is dropped / duplicated: the block pointer of a closure without
   captured variables is null) followed by the parallel moves leaves the machine's rearranged environment in
   the temporaries of the new context *)
Theorem sim_substitute c e s sp re vs e' c1 lc lc1 c2 pc :
  rel c e s sp -> NoDup (new_ids re) ->
  (forall q, In q re -> has c (snd q) (bchi (fst q)) (bty (fst q)) = true) ->
  lookups e (map snd re) = Some vs -> bind (map (fun r => bvar (fst r)) re) vs = Some e' ->
  code_weakening_contraction a64_backend (transpose re c) c lc = Ok (c1, lc1) ->
  code_exchange a64_backend (transpose re c) c (map fst re) = Ok c2 ->
  code_at im pc (c1 ++ c2) -> labels_at_nh im pc (c1 ++ c2) ->
  exists s', exec_to im pc s (padd pc (List.length (c1 ++ c2))) s' /\ rel (map fst re) e' s' sp /\ frame_eq s s' sp.
Proof.
  intros R NDn KIND LK BD WC CE CA LA.
  pose proof (rel_nodup R) as NDc. pose proof (rel_frame R) as F. pose proof (rel_length R) as LEN.
  apply code_at_app in CA as [CA1 CA2]. apply labels_at_nh_app in LA as [LA1 _].
  unfold code_exchange in CE.
  destruct (connections a64_backend (transpose re c) c (map fst re)) as [am|] eqn:CN; cbn [rbind] in CE; [|discriminate].
  (* every new variable has a source position of the same kind and type *)
  assert (SRC : forall j pj, nth_error re j = Some pj ->
            exists i bi, nth_error c i = Some bi /\ idn (bvar bi) = idn (snd pj) /\
                         bchi bi = bchi (fst pj) /\ bty bi = bty (fst pj)).
  { intros j pj Hj. specialize (KIND pj (nth_error_In _ _ Hj)). unfold has in KIND.
    destruct (lookup_b c (idn (snd pj))) as [bi|] eqn:LB; [|discriminate].
    apply lookup_b_Some in LB as [Hin Hid]. apply andb_true_iff in KIND as [K1 K2].
    apply chi_eqb_eq in K1. apply ty_eqb_eq in K2. apply In_nth_error in Hin as (i & Hi). eauto 8. }
  (* phase 1: reference counts, all on null pointers *)
  destruct (weakening_contraction_counts a64_backend c re lc c1 lc1 NDc WC) as (order & PERM & _ & ORD & ops & F2 & EM).
  assert (OBJ : forall i b, In (i, b) order -> is_obj b = true).
  { intros i b Hin. assert (In b (map snd order)) as Hb by (apply in_map_iff; exists (i, b); auto).
    eapply Permutation.Permutation_in in Hb; [|exact PERM]. apply filter_In in Hb. tauto. }
  assert (NULL : forall i b t, In (i, b) order -> atpos Fst i = Ok t -> lget s sp t = Some 0).
  { intros i b t Hin Ht. pose proof (ORD i b Hin) as Hnth. pose proof (OBJ i b Hin) as Ho.
    assert (Li : (i < List.length e)%nat) by (rewrite LEN; apply nth_error_Some; congruence).
    destruct (nth_error e i) as [[y v]|] eqn:He; [|apply nth_error_None in He; lia].
    destruct (rel_vals R i y v He) as (b' & Hb' & V). assert (b' = b) by congruence. subst b'.
    inversion V; subst.
    - unfold is_obj in Ho. rewrite H in Ho. discriminate.
    - congruence. }
  assert (RCOK : Forall (rc_ok s sp) (List.concat ops)).
  { apply (rc_ops_ok s sp re order ops F2). intros i b t Hin Ht. exists 0. split; [exact (NULL i b t Hin Ht)|now left]. }
  assert (EMc : c1 = fst (emit_rc a64_backend (List.concat ops) lc)) by (now rewrite <- EM).
  destruct (rel_free R) as (f & FR).
  assert (LA1' : labels_at im pc c1) by (apply labels_at_of_nh; [rewrite EMc; apply nh_emit_rc|exact LA1]).
  rewrite EMc in CA1, LA1'.
  destruct (a64_emit_rc_ok im s sp (List.concat ops) pc lc s f RCOK (fun r _ _ _ => eq_refl) eq_refl CA1 LA1' F FR)
    as (s1 & f1 & X1 & X2 & X3 & X4 & X5 & X6).
  rewrite <- EMc in X1.
  (* null pointers: heap and FREE are unchanged *)
  assert (ID : fold_left (fun hf o => rc_h s sp o hf) (List.concat ops) (heap s, f) = (heap s, f)).
  { rewrite (rc_ops_fold s sp re (fun i => match atpos Fst i with Ok t => ptr_of s sp t | Err _ => 0 end) order ops F2)
      by (intros i t Ht; now rewrite Ht).
    apply fold_left_id. intros [i b] Hin hf. cbn [fst snd]. destruct (rc_ops_tpos re order ops i b F2 Hin) as (t & Ht).
    rewrite Ht. unfold ptr_of. rewrite (NULL i b t Hin Ht). destruct (count_targets re b) as [|[|k]]; reflexivity. }
  rewrite ID in X3. inversion X3 as [[HP FQ]]. subst f1.
  assert (F1 : frame_ok s1 sp).
  { destruct F as [A B]. split; [|exact B]. change (spv s1) with (rget s1 SP). rewrite X4; [exact A|discriminate|discriminate|discriminate]. }
  assert (AG : forall t, operand_ok t -> t <> AR FREE -> lget s1 sp t = lget s sp t).
  { intros t VT NF. apply lget_agree; auto. }
  (* phase 2: the parallel moves *)
  destruct (transpose_connections_indeg1 a64_backend a64_backend_ok c re am NDc NDn CN) as (IDG & NT & _ & _).
  pose proof (connections_edges a64_backend a64_backend_ok c re am NDc NDn CN) as EDG.
  pose proof (connections_amap_ok c re am NDc NDn CN) as AMOK.
  destruct (a64_parallel_moves_frame_ok im am c2 s1 sp IDG NT AMOK CE F1) as (s2 & E2 & P1 & P2 & F2' & H2 & O2 & _ & OUT).
  pose proof (run_straight_exec_to im c2 _ s1 s2 CA2 E2) as X2'.
  assert (FREE2 : rget s2 FREE = Some f).
  { rewrite <- X2. change (rget s2 FREE) with (lget s2 sp (AR FREE)). change (rget s1 FREE) with (lget s1 sp (AR FREE)).
    apply P2.
    + destruct free_operand as (A & B & C & _). repeat split; auto.
    + intros a E. apply EDG in E as (i & j & bi & pj & n & _ & _ & _ & _ & _ & Hb).
      destruct (atpos_operand_ok n j _ Hb) as (_ & N & _). congruence. }
  exists s2. split; [rewrite app_length, padd_add; eapply exec_to_trans; eauto|]. split.
  - destruct R as [F0 Ro Fr Ids ND0 Vals]. split; auto.
    + eauto.
    + unfold env_ids. rewrite <- (map_map fst idn), (bind_ids _ _ _ BD). unfold ids. now rewrite !map_map.
    + now rewrite ids_new.
    + intros j x v Hj.
      destruct (bind_nth _ _ _ _ _ _ BD Hj) as (Hx & Hv).
      rewrite nth_error_map in Hx. destruct (nth_error re j) as [pj|] eqn:Hre; [|discriminate]. cbn in Hx. inversion Hx; subst x.
      exists (fst pj). split; [now rewrite nth_error_map, Hre|].
      destruct (lookups_nth e (map snd re) vs j (snd pj) LK) as (v' & Hv' & LV).
      { now rewrite nth_error_map, Hre. }
      assert (v' = v) by congruence. subst v'.
      unfold lookup_id in LV. destruct (lookup_nth e _ _ LV) as (i & y & Hi & Ey).
      destruct (Vals i y v Hi) as (bi & Hbi & V).
      destruct (SRC j pj Hre) as (i' & bi' & Hi' & Ei' & KC & KT).
      assert (i' = i).
      { destruct (env_ctx_nth c e i y v Ids Hi) as (b0 & Hb0 & Eb0).
        eapply (ids_nth_inj c i' i bi' b0); eauto. congruence. }
      subst i'. assert (bi' = bi) by congruence. subst bi'.
      assert (MV : forall n ta, allowed n bi -> atpos n i = Ok ta -> exists tb, atpos n j = Ok tb /\ lget s2 sp tb = lget s sp ta).
      { intros n ta AL Ta.
        destruct (subst_edge c re am n i bi j pj NDc NDn CN Hbi AL Hre (eq_sym Ei')) as (ta' & tb & Ta' & Tb & ED).
        assert (ta' = ta) by congruence. subst ta'. exists tb. split; [exact Tb|].
        rewrite (P1 ta tb ED). destruct (atpos_operand_ok n i ta Ta) as (VT & NF & _). now apply AG. }
      inversion V as [b0 z0 t0 K1 K2 T0 L0 I0|b0 tn0 cls0 a0 t1 t2 K1 K2 T1 T2 L1 L2 C0]; subst.
      * destruct (MV Snd t0 (or_introl eq_refl) T0) as (tb & Tb & Lb).
        eapply vrep_int; eauto; congruence.
      * assert (AL : forall n, allowed n bi) by (intros n; right; congruence).
        destruct (MV Fst t1 (AL Fst) T1) as (tb1 & Tb1 & Lb1). destruct (MV Snd t2 (AL Snd) T2) as (tb2 & Tb2 & Lb2).
        eapply vrep_clo; eauto; congruence.
  - repeat split; try congruence.
    intros k Hk. rewrite (OUT k Hk). now rewrite X5.
Qed.

(* Call: relabelling by a context of the same kinds *)
Lemma vrep_kind s sp i b b' v : bchi b' = bchi b -> bty b' = bty b -> vrep CL s sp i b v -> vrep CL s sp i b' v.
Proof.
  intros K T V. destruct V as [b z t A B T0 L I|b tn cls a t1 t2 A B T1 T2 L1 L2 C].
  - eapply vrep_int; eauto; congruence.
  - eapply vrep_clo; eauto; congruence.
Qed.
Lemma bind_rel c e st sp (c' : ctx) e' :
  rel c e st sp -> NoDup (ids c') -> sig_match c c' = true ->
  bind (vars c') (map snd e) = Some e' -> rel c' e' st sp.
Proof.
  intros R ND SM BD. pose proof (rel_length R) as LE. destruct R as [F Ro Fr Ids ND0 Vals]. split; auto.
  - unfold env_ids. rewrite <- (map_map fst idn), (bind_ids _ _ _ BD). unfold vars, ids. now rewrite map_map.
  - intros i x v Hi. destruct (bind_nth _ _ _ _ _ _ BD Hi) as (_ & Hv).
    rewrite nth_error_map in Hv. destruct (nth_error e i) as [[y w]|] eqn:He; [|discriminate]. cbn in Hv. inversion Hv; subst w.
    destruct (Vals i y v He) as (b & Hb & V). destruct (sig_match_nth c c' i b SM Hb) as (b' & Hb' & K & T).
    exists b'. split; [exact Hb'|]. apply (vrep_kind st sp i b b' v); [congruence|congruence|exact V].
Qed.

Definition above_eq (s s' : astate) (sp : Z) : Prop :=
  heap s' = heap s /\ (forall k, sp <= Z.pos k - 1 -> PM.find k (stack s') = PM.find k (stack s)).

(* PrintI64 in ANY context (integers and closures in any positions, in particular a 13th variable in the
   link register): Proof/A64Print.v (the theorem behind C13_a64_print_preserves_context) says
   that every temporary of every variable, HEAP, FREE, SP, the heap and the stack at and above SP survive *)
Theorem sim_print c e s sp nl v z tv :
  rel c e s sp -> lookup_int e v = Some z -> avt c (idn v) = Ok tv ->
  exists s', run_straight im (a_print nl tv c) s = MOk s' /\
    rel c e s' sp /\ out s' = (nl, z) :: out s /\ above_eq s s' sp.
Proof.
  intros R LV TV.
  destruct (rel_operand0 CL c e s sp v z tv R LV TV) as (i & bi & Hi & Ti & Vi & Ii).
  destruct (a64_print_ok im nl tv c s sp z (rel_frame R) (rel_room R)) as (s' & E & O & H & F' & HP & FR & K & AB).
  { eapply a64_print_src_ok_variable; eauto. }
  { exact Vi. }
  exists s'. split; [exact E|]. split; [|split; [exact O|split; [exact H|exact AB]]].
  apply (rel_keep CL c e s s' sp R F' FR).
  intros j b n t Hj AL Tj. apply (K j b n t Hj AL Tj).
Qed.
End Sim.
