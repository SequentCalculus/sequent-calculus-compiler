(* The model of uniquify (Model/Uniquify.v): on well-formed input it never fails (no panic, fuel
   suffices), the counter only grows, and the output's binders are pairwise distinct, each either
   an inherited non-zero id or a fresh one from the counter interval; ids stay below the counter
   and non-zero ids stay in scope.
   In the statements [UQt], [UQa], [UQc], [UQs] (at fuel f): m is the counter handed to the model, T a
   bound of the non-zero binder ids of the input with T <= m - hence the fresh ids, all above m, differ
   from every inherited binder - and env the list of ids in scope. *)
From Coq Require Import List ZArith NArith String Bool Lia.
From SCC Require Import Base.Sexp Lang.CoreSyn Model.Backend Model.Uniquify Model.FocusCheck
     Proof.CoreInd Proof.SubstProof Proof.CheckLemmas.
Import ListNotations.
Open Scope list_scope.
Open Scope N_scope.

Lemma depth_term_pos : forall t, (1 <= depth_term t)%nat.
Proof. destruct t; simpl; lia. Qed.
Lemma depth_stmt_pos : forall s, (1 <= depth_stmt s)%nat.
Proof. destruct s; simpl; lia. Qed.
Lemma depth_clause_pos : forall c, (1 <= depth_clause c)%nat.
Proof. destruct c; simpl; lia. Qed.

Lemma bspec_mem_le : forall T R m m' L, bspec R m m' L -> mem_le T R -> T <= m' -> mem_le m' L.
Proof.
  intros T R m m' L [_ B] M LE b Hb. destruct (B b Hb) as [H|H]; [specialize (M b H); lia | lia].
Qed.

Lemma nonzero_cons0 : forall x l, x = 0 -> nonzero (x :: l) = nonzero l.
Proof. intros; subst; reflexivity. Qed.
Lemma nonzero_cons_nz : forall x l, x <> 0 -> nonzero (x :: l) = x :: nonzero l.
Proof. intros x l H. unfold nonzero; simpl. apply N.eqb_neq in H. rewrite H. reflexivity. Qed.

Lemma frev_rev : forall (X : Type) (l : list X), frev l = rev l.
Proof. intros; unfold frev. rewrite rev_append_rev. apply app_nil_r. Qed.

Lemma uq_context_acc : forall bs m acc vs cs,
  uq_context bs m acc vs cs =
  let '(c, v, k, m') := uq_context bs m [] [] [] in (rev acc ++ c, rev vs ++ v, rev cs ++ k, m').
Proof.
  induction bs as [|b r IH]; intros m acc vs cs; simpl.
  - rewrite !frev_rev. simpl. rewrite !app_nil_r. reflexivity.
  - destruct (N.eqb (cid_id (cbvar b)) 0).
    + destruct (cbchi b).
      * rewrite (IH _ (_ :: acc) (_ :: vs) cs). rewrite (IH _ [_] [_] []).
        destruct (uq_context r (m + 1) [] [] []) as [[[c v] k] m']. simpl.
        rewrite <- !app_assoc. reflexivity.
      * rewrite (IH _ (_ :: acc) vs (_ :: cs)). rewrite (IH _ [_] [] [_]).
        destruct (uq_context r (m + 1) [] [] []) as [[[c v] k] m']. simpl.
        rewrite <- !app_assoc. reflexivity.
    + rewrite (IH _ (_ :: acc) vs cs). rewrite (IH _ [_] [] []).
      destruct (uq_context r m [] [] []) as [[[c v] k] m']. simpl.
      rewrite <- !app_assoc. reflexivity.
Qed.

Lemma rng_cons : forall b env k c v ty s,
  cid_id v <= b -> In (cid_id v) env -> rng b env s -> rng b env ((k, CXVar c v ty) :: s).
Proof. intros. constructor; auto. exists c, v, ty; auto. Qed.
Lemma rng_bound : forall b b' env s, rng b env s -> b <= b' -> rng b' env s.
Proof.
  unfold rng; intros b b' env s H L. rewrite Forall_forall in *. intros p Hp.
  destruct (H p Hp) as (c & v & ty & E & L1 & M). exists c, v, ty. repeat split; auto. lia.
Qed.

Lemma uq_context_spec : forall bs T m,
  NoDup (nonzero (cids bs)) -> mem_le T (nonzero (cids bs)) -> T <= m ->
  exists ctx' vs cs m1, uq_context bs m [] [] [] = (ctx', vs, cs, m1) /\ m <= m1 /\
    bspec (nonzero (cids bs)) m m1 (cids ctx') /\
    rng m1 (cids ctx') vs /\ rng m1 (cids ctx') cs /\ sub_nz (cids bs) (cids ctx').
Proof.
  induction bs as [|b r IH]; intros T m ND ML LE; simpl.
  - exists [], [], [], m. split; [reflexivity|]. split; [lia|]. split; [apply bspec_nil|].
    split; [apply rng_nil|]. split; [apply rng_nil|apply sub_nz_refl].
  - change (cids (b :: r)) with (cid_id (cbvar b) :: cids r) in *. destruct (N.eqb (cid_id (cbvar b)) 0) eqn:Z.
    + apply N.eqb_eq in Z. rewrite (nonzero_cons0 _ _ Z) in *.
      destruct (IH T (m + 1)) as (c & v & k & m1 & E & L1 & BS & Rv & Rk & SN); auto; try lia.
      assert (F : bspec (nonzero (cids r)) m m1 ((m + 1) :: cids c)).
      { eapply bspec_cons_fresh; eauto. }
      assert (SN' : sub_nz (cid_id (cbvar b) :: cids r) ((m + 1) :: cids c)).
      { rewrite Z. eapply sub_nz_trans; [apply sub_nz_drop0|]. apply sub_nz_skip; auto. }
      destruct (cbchi b).
      * rewrite uq_context_acc, E. simpl.
        eexists _, _, _, _. split; [reflexivity|]. simpl.
        split; [lia|]. split; [exact F|]. split; [|split; [|exact SN']].
        -- apply rng_cons; simpl; try lia; auto. eapply rng_env; eauto. intros ? ?; right; auto.
        -- eapply rng_env; eauto. intros ? ?; right; auto.
      * rewrite uq_context_acc, E. simpl.
        eexists _, _, _, _. split; [reflexivity|]. simpl.
        split; [lia|]. split; [exact F|]. split; [|split; [|exact SN']].
        -- eapply rng_env; eauto. intros ? ?; right; auto.
        -- apply rng_cons; simpl; try lia; auto. eapply rng_env; eauto. intros ? ?; right; auto.
    + apply N.eqb_neq in Z. rewrite (nonzero_cons_nz _ _ Z) in *.
      assert (ML' := ML). apply mem_le_cons in ML'. destruct ML' as [Lb ML'].
      assert (ND' := ND). apply NoDup_cons_iff in ND'. destruct ND' as [Nin ND'].
      destruct (IH T m) as (c & v & k & m1 & E & L1 & BS & Rv & Rk & SN); auto.
      rewrite uq_context_acc, E. simpl.
      eexists _, _, _, _. split; [reflexivity|]. simpl.
      split; [lia|]. split; [eapply bspec_cons_keep; eauto|]. split; [|split].
      * eapply rng_env; eauto. intros ? ?; right; auto.
      * eapply rng_env; eauto. intros ? ?; right; auto.
      * apply sub_nz_cons; auto.
Qed.

(* the specification of uq_* at a given fuel.  T is a bound on the non-zero binder ids of the input (in the program
   theorem: max_id of the program) and the counter m starts at or above it, so a fresh id m' + 1 > T is no id that
   was there; [bspec R m m' L] says the output binders L are distinct and each is inherited (in R) or in (m, m']. *)
Definition UQt (f : nat) : Prop := forall t T env m c,
  (depth_term t <= f)%nat -> wf_term c t = true ->
  NoDup (nonzero (binder_ids_term t)) -> mem_le T (nonzero (binder_ids_term t)) -> T <= m ->
  ids_le_term m t = true -> scoped_term env t = true ->
  exists t' m', uq_term f t m = Ok (t', m') /\ m <= m' /\ wf_term c t' = true /\
    is_xtor t' = is_xtor t /\ is_op t' = is_op t /\
    bspec (nonzero (binder_ids_term t)) m m' (binder_ids_term t') /\
    ids_le_term m' t' = true /\ scoped_term env t' = true.
Definition UQa (f : nat) : Prop := forall a T env m,
  (depth_arg a <= f)%nat -> wf_arg a = true ->
  NoDup (nonzero (binder_ids_arg a)) -> mem_le T (nonzero (binder_ids_arg a)) -> T <= m ->
  ids_le_arg m a = true -> scoped_arg env a = true ->
  exists a' m', uq_arg_with (uq_term f) a m = Ok (a', m') /\ m <= m' /\ wf_arg a' = true /\
    bspec (nonzero (binder_ids_arg a)) m m' (binder_ids_arg a') /\
    ids_le_arg m' a' = true /\ scoped_arg env a' = true.
Definition UQc (f : nat) : Prop := forall cl T env m,
  (depth_clause cl <= f)%nat -> wf_clause cl = true ->
  NoDup (nonzero (binder_ids_clause cl)) -> mem_le T (nonzero (binder_ids_clause cl)) -> T <= m ->
  ids_le_clause m cl = true -> scoped_clause env cl = true ->
  exists cl' m', uq_clause f cl m = Ok (cl', m') /\ m <= m' /\ wf_clause cl' = true /\
    bspec (nonzero (binder_ids_clause cl)) m m' (binder_ids_clause cl') /\
    ids_le_clause m' cl' = true /\ scoped_clause env cl' = true.
Definition UQs (f : nat) : Prop := forall s T env m,
  (depth_stmt s <= f)%nat -> wf_stmt s = true ->
  NoDup (nonzero (binder_ids_stmt s)) -> mem_le T (nonzero (binder_ids_stmt s)) -> T <= m ->
  ids_le_stmt m s = true -> scoped_stmt env s = true ->
  exists s' m', uq_stmt f s m = Ok (s', m') /\ m <= m' /\ wf_stmt s' = true /\
    bspec (nonzero (binder_ids_stmt s)) m m' (binder_ids_stmt s') /\
    ids_le_stmt m' s' = true /\ scoped_stmt env s' = true.

Lemma UQt_UQa : forall f, UQt f -> UQa f.
Proof.
  intros f H a T env m D W ND ML LE I S. destruct a as [p|p]; simpl in *.
  - destruct (H p T env m CPrd) as (p' & m' & E & L & W' & _ & _ & BS & I' & S'); auto.
    rewrite E; simpl. exists (CProducer p'), m'. repeat split; auto; apply BS.
  - destruct (H p T env m CCns) as (p' & m' & E & L & W' & _ & _ & BS & I' & S'); auto.
    rewrite E; simpl. exists (CConsumer p'), m'. repeat split; auto; apply BS.
Qed.

(* lists: maprs with the counter threaded *)
Section ListSpec.
  Variables (X : Type) (g : X -> N -> res (X * N)).
  Variables (dep : X -> nat) (wf : X -> bool) (bids : X -> list N) (idle : N -> X -> bool) (sc : list N -> X -> bool).
  Variable f : nat.
  Hypothesis idle_mono : forall b b' x, b <= b' -> idle b x = true -> idle b' x = true.
  Hypothesis Hg : forall x T env m,
    (dep x <= f)%nat -> wf x = true ->
    NoDup (nonzero (bids x)) -> mem_le T (nonzero (bids x)) -> T <= m ->
    idle m x = true -> sc env x = true ->
    exists x' m', g x m = Ok (x', m') /\ m <= m' /\ wf x' = true /\
      bspec (nonzero (bids x)) m m' (bids x') /\ idle m' x' = true /\ sc env x' = true.

  Lemma maprs_uq_spec : forall l T env m,
    (forall x, In x l -> (dep x <= f)%nat) -> forallb wf l = true ->
    NoDup (nonzero (flat_map bids l)) -> mem_le T (nonzero (flat_map bids l)) -> T <= m ->
    forallb (idle m) l = true -> forallb (sc env) l = true ->
    exists l' m', maprs g l m = Ok (l', m') /\ m <= m' /\ forallb wf l' = true /\
      bspec (nonzero (flat_map bids l)) m m' (flat_map bids l') /\
      forallb (idle m') l' = true /\ forallb (sc env) l' = true.
  Proof.
    induction l as [|x l IH]; intros T env m D W ND ML LE I S; simpl in *.
    - exists [], m. split; [reflexivity|]. split; [lia|]. split; [auto|]. split; [apply bspec_nil|auto].
    - bsplit. rewrite nonzero_app in *.
      assert (ND' := ND). apply NoDup_app_iff in ND'. destruct ND' as (ND1 & ND2 & _).
      assert (ML' := ML). apply mem_le_app in ML'. destruct ML' as (ML1 & ML2).
      destruct (Hg x T env m) as (x' & m1 & E1 & L1 & W1 & B1 & I1 & S1); auto.
      destruct (IH T env m1) as (l' & m2 & E2 & L2 & W2 & B2 & I2 & S2); auto; try lia.
      { eapply forallb_impl with (f := idle m); [|eassumption]. intros y Hy Iy. eapply idle_mono; [|exact Iy]. lia. }
      rewrite E1; simpl. rewrite E2; simpl. exists (x' :: l'), m2. simpl.
      split; [reflexivity|]. split; [lia|]. split; [bsplit; auto|].
      split; [eapply bspec_app; eauto|]. split; bsplit; auto.
      eapply idle_mono; [|eassumption]. lia.
  Qed.
End ListSpec.

Lemma in_depth_args : forall a l, In a l -> (depth_arg a <= depth_args l)%nat.
Proof. induction l; simpl; intros H; [tauto|]. destruct H; subst; [lia | specialize (IHl H); lia]. Qed.
Lemma in_depth_clauses : forall a l, In a l -> (depth_clause a <= depth_clauses l)%nat.
Proof. induction l; simpl; intros H; [tauto|]. destruct H; subst; [lia | specialize (IHl H); lia]. Qed.

Lemma sub_nz_fresh : forall x n env, x = 0 -> sub_nz (x :: env) (n :: env).
Proof. intros x n env ->. eapply sub_nz_trans; [apply sub_nz_drop0 | apply sub_nz_skip, sub_nz_refl]. Qed.

Local Arguments nonzero : simpl never.

Lemma uq_spec : forall f, UQt f /\ UQc f /\ UQs f.
Proof.
  induction f as [|f (IHt & IHc & IHs)].
  { repeat split; intros x; intros.
    - pose proof (depth_term_pos x); lia.
    - pose proof (depth_clause_pos x); lia.
    - pose proof (depth_stmt_pos x); lia. }
  assert (IHa := UQt_UQa f IHt).
  assert (Hargs := maprs_uq_spec carg (uq_arg_with (uq_term f)) depth_arg wf_arg binder_ids_arg ids_le_arg scoped_arg f
                     (fun b b' x L => ids_le_arg_mono b b' L x) IHa).
  assert (Hcls := maprs_uq_spec cclause (uq_clause f) depth_clause wf_clause binder_ids_clause ids_le_clause scoped_clause f
                     (fun b b' x L => ids_le_clause_mono b b' L x) IHc).
  split; [|split].
  - (* terms *)
    intros t T env m c D W ND ML LE I S. destruct t as [c0 v ty|n|a o b|c0 v s ty|c0 x args ty|c0 cls ty]; simpl in *.
    + exists (CXVar c0 v ty), m. repeat split; auto; try lia; try constructor; try (intros ? []).
    + exists (CLit n), m. repeat split; auto; try lia; try constructor; try (intros ? []).
    + (* Op *)
      bsplit. rewrite nonzero_app in *.
      assert (ND' := ND). apply NoDup_app_iff in ND'. destruct ND' as (ND1 & ND2 & _).
      assert (ML' := ML). apply mem_le_app in ML'. destruct ML' as (ML1 & ML2).
      destruct c; try discriminate.
      destruct (IHt a T env m CPrd) as (a' & m1 & E1 & L1 & W1 & _ & _ & B1 & I1 & S1); auto; try lia.
      destruct (IHt b T env m1 CPrd) as (b' & m2 & E2 & L2 & W2 & _ & _ & B2 & I2 & S2); auto; try lia.
      { eapply ids_le_term_mono; [|eassumption]; lia. }
      rewrite E1; simpl. rewrite E2; simpl. exists (COp a' o b'), m2. simpl.
      split; [reflexivity|]. split; [lia|]. split; [bsplit; auto|]. split; [auto|]. split; [auto|].
      split; [eapply bspec_app; eauto|]. split; bsplit; auto.
      eapply ids_le_term_mono; [|eassumption]; lia.
    + (* Mu *)
      bsplit. apply N.leb_le in H. destruct (N.eqb (cid_id v) 0) eqn:Z.
      * apply N.eqb_eq in Z. rewrite (nonzero_cons0 _ _ Z) in *.
        assert (SB : exists s1, match c0 with
                                | CPrd => subst_covar_stmt s v (CXVar CCns (cid_name v, m + 1) ty)
                                | CCns => subst_var_stmt s v (CXVar CPrd (cid_name v, m + 1) ty)
                                end = Ok s1 /\ sspec_stmt (m + 1) ((m + 1) :: env) s s1).
        { assert (I1 : ids_le_stmt (m + 1) s = true) by (eapply ids_le_stmt_mono; [|eassumption]; lia).
          assert (S1 : scoped_stmt ((m + 1) :: env) s = true).
          { eapply scoped_stmt_mono; [|eassumption]. apply sub_nz_fresh; auto. }
          destruct c0; unfold subst_covar_stmt, subst_var_stmt; apply subst_var_spec_stmt; auto;
            try apply rng_nil; apply rng_cons; simpl; try lia; auto; apply rng_nil. }
        destruct SB as (s1 & Es1 & (Sb & Sd & Sw & Si & Ss)).
        rewrite Es1; simpl.
        destruct (IHs s1 T ((m + 1) :: env) (m + 1)) as (s2 & m2 & E2 & L2 & W2 & B2 & I2 & S2); auto; try lia.
        { rewrite Sb; auto. } { rewrite Sb; auto. }
        rewrite E2; simpl. exists (CMu c0 (cid_name v, m + 1) s2 ty), m2. simpl.
        split; [reflexivity|]. split; [lia|]. split; [auto|]. split; [auto|]. split; [auto|].
        split; [|split; auto].
        -- rewrite Sb in B2. eapply bspec_cons_fresh; eauto.
        -- bsplit; auto. apply N.leb_le; lia.
      * apply N.eqb_neq in Z. rewrite (nonzero_cons_nz _ _ Z) in *.
        assert (ML' := ML). apply mem_le_cons in ML'. destruct ML' as [Lb ML'].
        assert (ND' := ND). apply NoDup_cons_iff in ND'. destruct ND' as [Nin ND'].
        destruct (IHs s T (cid_id v :: env) m) as (s2 & m2 & E2 & L2 & W2 & B2 & I2 & S2); auto; try lia.
        rewrite E2; simpl. exists (CMu c0 v s2 ty), m2. simpl.
        split; [reflexivity|]. split; [lia|]. split; [auto|]. split; [auto|]. split; [auto|].
        split; [|split; auto].
        -- eapply bspec_cons_keep; eauto.
        -- bsplit; auto. apply N.leb_le; lia.
    + (* Xtor *)
      rewrite depth_args_eq in D.
      destruct (Hargs args T env m) as (args' & m1 & E1 & L1 & W1 & B1 & I1 & S1); auto.
      { intros a Ha. pose proof (in_depth_args a args Ha). lia. }
      rewrite E1; simpl. exists (CXtor c0 x args' ty), m1. simpl. repeat split; auto; apply B1.
    + (* XCase *)
      rewrite depth_clauses_eq in D.
      destruct (Hcls cls T env m) as (cls' & m1 & E1 & L1 & W1 & B1 & I1 & S1); auto.
      { intros a Ha. pose proof (in_depth_clauses a cls Ha). lia. }
      rewrite E1; simpl. exists (CXCase c0 cls' ty), m1. simpl. repeat split; auto; apply B1.
  - (* clauses *)
    intros cl T env m D W ND ML LE I S. destruct cl as [c0 x ctx body]; simpl in *.
    bsplit. rewrite nonzero_app in *.
    assert (ND' := ND). apply NoDup_app_iff in ND'. destruct ND' as (ND1 & ND2 & _).
    assert (ML' := ML). apply mem_le_app in ML'. destruct ML' as (ML1 & ML2).
    destruct (uq_context_spec ctx T m) as (ctx' & vs & cs & m1 & E & L1 & BC & Rv & Rc & SN); auto.
    rewrite E.
    assert (I1 : ids_le_stmt m1 body = true) by (eapply ids_le_stmt_mono; [|eassumption]; lia).
    assert (S1 : scoped_stmt (cids ctx' ++ env) body = true).
    { eapply scoped_stmt_mono; [|eassumption]. apply sub_nz_app2; auto. apply sub_nz_refl. }
    assert (SB : exists b1, (if is_nil vs && is_nil cs then Ok body else subst_stmt body vs cs) = Ok b1
                            /\ sspec_stmt m1 (cids ctx' ++ env) body b1).
    { destruct (is_nil vs && is_nil cs).
      - exists body; split; auto. unfold sspec_stmt; auto.
      - apply subst_var_spec_stmt; auto; eapply rng_env; eauto; intros ? ?; apply in_or_app; auto. }
    destruct SB as (b1 & Eb1 & (Sb & Sd & Sw & Si & Ss)). rewrite Eb1; simpl.
    destruct (IHs b1 T (cids ctx' ++ env) m1) as (b2 & m2 & E2 & L2 & W2 & B2 & I2 & S2); auto; try lia.
    { rewrite Sb; auto. } { rewrite Sb; auto. }
    rewrite E2; simpl. exists (CClause c0 x ctx' b2), m2. simpl.
    split; [reflexivity|]. split; [lia|]. split; [auto|]. split; [|split; auto].
    + rewrite Sb in B2. eapply bspec_app; eauto.
    + bsplit; auto. apply forallb_leb. eapply mem_le_mono; [|exact L2]. eapply bspec_mem_le; eauto. lia.
  - (* statements *)
    intros s T env m D W ND ML LE I S. destruct s as [p ty k|so a bo t e|nl a next|g args ty|a ty]; simpl in *.
    + (* Cut *)
      bsplit. rewrite nonzero_app in *.
      assert (ND' := ND). apply NoDup_app_iff in ND'. destruct ND' as (ND1 & ND2 & _).
      assert (ML' := ML). apply mem_le_app in ML'. destruct ML' as (ML1 & ML2).
      destruct (IHt p T env m CPrd) as (p' & m1 & E1 & L1 & W1 & X1 & O1 & B1 & I1 & S1); auto; try lia.
      destruct (IHt k T env m1 CCns) as (k' & m2 & E2 & L2 & W2 & X2 & O2 & B2 & I2 & S2); auto; try lia.
      { eapply ids_le_term_mono; [|eassumption]; lia. }
      rewrite E1; simpl. rewrite E2; simpl. exists (CCut p' ty k'), m2. simpl.
      split; [reflexivity|]. split; [lia|]. split; [rewrite X1, X2, O1; bsplit; auto|].
      split; [eapply bspec_app; eauto|]. split; bsplit; auto.
      eapply ids_le_term_mono; [|eassumption]; lia.
    + (* IfC *)
      bsplit. rewrite !nonzero_app in *.
      assert (ND' := ND). apply NoDup_app_iff in ND'. destruct ND' as (ND1 & NDr & _).
      assert (ML' := ML). apply mem_le_app in ML'. destruct ML' as (ML1 & MLr).
      assert (ND'' := NDr). apply NoDup_app_iff in ND''. destruct ND'' as (ND2 & NDr2 & _).
      assert (ML'' := MLr). apply mem_le_app in ML''. destruct ML'' as (ML2 & MLr2).
      assert (ND3 := NDr2). apply NoDup_app_iff in ND3. destruct ND3 as (ND3 & ND4 & _).
      assert (ML3 := MLr2). apply mem_le_app in ML3. destruct ML3 as (ML3 & ML4).
      destruct (IHt a T env m CPrd) as (a' & m1 & E1 & L1 & W1 & _ & _ & B1 & I1 & S1); auto; try lia.
      rewrite E1; simpl.
      assert (HB : exists b' m2,
                 match bo with
                 | Some b0 => dor (b1, m2) <- uq_term f b0 m1; Ok (Some b1, m2)
                 | None => Ok (None, m1)
                 end = Ok (b', m2) /\ m1 <= m2 /\
                 match b' with Some b1 => wf_term CPrd b1 | None => true end = true /\
                 bspec (nonzero match bo with Some b1 => binder_ids_term b1 | None => [] end) m1 m2
                       match b' with Some b1 => binder_ids_term b1 | None => [] end /\
                 match b' with Some y' => ids_le_term m2 y' | None => true end = true /\
                 match b' with Some y' => scoped_term env y' | None => true end = true).
      { destruct bo as [b0|].
        - destruct (IHt b0 T env m1 CPrd) as (b' & m2 & E2 & L2 & W2 & _ & _ & B2 & I2 & S2); auto; try lia.
          { eapply ids_le_term_mono; [|eassumption]; lia. }
          rewrite E2; simpl. exists (Some b'), m2. repeat split; auto; apply B2.
        - exists None, m1. repeat split; auto; try lia; try constructor; try (intros ? []). }
      destruct HB as (b' & m2 & E2 & L2 & W2 & B2 & I2 & S2). rewrite E2; simpl.
      destruct (IHs t T env m2) as (t' & m3 & E3 & L3 & W3 & B3 & I3 & S3); auto; try lia.
      { eapply ids_le_stmt_mono; [|eassumption]; lia. }
      rewrite E3; simpl.
      destruct (IHs e T env m3) as (e' & m4 & E4 & L4 & W4 & B4 & I4 & S4); auto; try lia.
      { eapply ids_le_stmt_mono; [|eassumption]; lia. }
      rewrite E4; simpl. exists (CIfC so a' b' t' e'), m4. simpl.
      split; [reflexivity|]. split; [lia|]. split; [bsplit; auto|].
      split.
      { eapply bspec_app; eauto; try lia. eapply bspec_app; eauto; try lia. eapply bspec_app; eauto; lia. }
      split; bsplit; auto.
      * eapply ids_le_term_mono; [|eassumption]; lia.
      * destruct b'; auto. eapply ids_le_term_mono; [|eassumption]; lia.
      * eapply ids_le_stmt_mono; [|eassumption]; lia.
    + (* Print *)
      bsplit. rewrite nonzero_app in *.
      assert (ND' := ND). apply NoDup_app_iff in ND'. destruct ND' as (ND1 & ND2 & _).
      assert (ML' := ML). apply mem_le_app in ML'. destruct ML' as (ML1 & ML2).
      destruct (IHt a T env m CPrd) as (a' & m1 & E1 & L1 & W1 & _ & _ & B1 & I1 & S1); auto; try lia.
      destruct (IHs next T env m1) as (n' & m2 & E2 & L2 & W2 & B2 & I2 & S2); auto; try lia.
      { eapply ids_le_stmt_mono; [|eassumption]; lia. }
      rewrite E1; simpl. rewrite E2; simpl. exists (CPrint nl a' n'), m2. simpl.
      split; [reflexivity|]. split; [lia|]. split; [bsplit; auto|].
      split; [eapply bspec_app; eauto|]. split; bsplit; auto.
      eapply ids_le_term_mono; [|eassumption]; lia.
    + (* Call *)
      rewrite depth_args_eq in D.
      destruct (Hargs args T env m) as (args' & m1 & E1 & L1 & W1 & B1 & I1 & S1); auto.
      { intros a Ha. pose proof (in_depth_args a args Ha). lia. }
      rewrite E1; simpl. exists (CCall g args' ty), m1. simpl. repeat split; auto; apply B1.
    + (* Exit *)
      destruct (IHt a T env m CPrd) as (a' & m1 & E1 & L1 & W1 & _ & _ & B1 & I1 & S1); auto; try lia.
      rewrite E1; simpl. exists (CExit a' ty), m1. simpl. repeat split; auto; apply B1.
Qed.
