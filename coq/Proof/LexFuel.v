(* C18: the iteration bound of the lexer model ([lex_string s] = lex (S |s|) s) never influences its answer:
   every iteration of [lex] that does not stop removes at least one character. *)
From Coq Require Import List ZArith NArith String Ascii Bool Lia.
From SCC Require Import Base.Sexp Lang.SynUtil Lang.FunSyn Model.Printer Model.Parser.
Import ListNotations.
Open Scope string_scope.

Local Notation len := String.length.

Lemma skip_while_len p s : len (skip_while p s) <= len s.
Proof. induction s as [|c r IH]; cbn; [lia|]. destruct (p c); cbn; lia. Qed.

Lemma skip_ws_len : forall n s, len s <= n -> len (skip_ws s) <= len s.
Proof.
  induction n as [|n IH]; intros s H.
  - destruct s; [cbn; lia|cbn in H; lia].
  - destruct s as [|c r]; [cbn; lia|].
    cbn [skip_ws]. cbn [len] in H.
    destruct (is_blank c); [specialize (IH r ltac:(lia)); cbn [len]; lia|].
    (* a multi-byte blank: skip_ws goes on two or three characters further on; otherwise it returns s *)
    assert (A : forall r', len r' <= len r -> len (skip_ws r') <= S (len r)).
    { intros r' Hr. specialize (IH r' ltac:(lia)). lia. }
    clear IH H. cbn [len].
    repeat match goal with
      | |- len (skip_ws _) <= _ => apply A; cbn [len]; lia
      | |- context [match ?x with _ => _ end] => destruct x; try exact (le_n _)
      end.
Qed.
Lemma skip_ws_le s : len (skip_ws s) <= len s.
Proof. apply (skip_ws_len (len s)). lia. Qed.

Lemma comment_rest_len r : len (comment_rest r) <= len r.
Proof.
  unfold comment_rest.
  set (body := match r with EmptyString => r | String c r2 => _ end).
  assert (Hb : len body <= len r).
  { subst body. destruct r as [|c r2]; [lia|].
    destruct (is_nl c); [lia|].
    destruct (Ascii.eqb c " ").
    - destruct r2 as [|c2 r3]; [lia|]. destruct (is_nl c2 || Ascii.eqb c2 "|"); [lia|apply skip_while_len].
    - apply skip_while_len. }
  pose proof (skip_while_len is_nl body). lia.
Qed.

(* [consumed st k]: the text left by the scan step [st] is shorter than k.  Every terminal and every comment is at
   least one character long: [scan_len]. *)
Definition consumed (st : lexstep) (k : nat) : Prop :=
  match st with LTok _ r => len r < k | LSkip r => len r < k | LErr => True end.

(* r"cmp\s*0": the terminal with the zero is chosen when a 0 follows the blanks *)
Definition is0 (s : string) : bool := match s with String ch _ => Ascii.eqb ch "0" | _ => false end.
Definition stail (s : string) : string := match s with String _ r => r | _ => "" end.
Lemma after_cmp_spec c R :
  after_cmp c R = if is0 (skip_ws R) then LTok (TCmpZ c) (stail (skip_ws R)) else LTok (TSym (SCmp c)) R.
Proof.
  unfold after_cmp. destruct (skip_ws R) as [|ch r]; [reflexivity|].
  destruct ch as [[] [] [] [] [] [] [] []]; reflexivity.
Qed.
Lemma after_cmp_consumed o r k : len r < k -> consumed (after_cmp o r) k.
Proof.
  intro H. rewrite after_cmp_spec. pose proof (skip_ws_le r) as Hs.
  destruct (is0 (skip_ws r)); cbn [consumed]; [|exact H]. destruct (skip_ws r); cbn [stail len] in *; lia.
Qed.
Lemma zero_cmp_len r o r' : zero_cmp r = Some (o, r') -> len r' < len r.
Proof.
  unfold zero_cmp.
  repeat match goal with
    | |- context [match ?x with _ => _ end] => destruct x; try discriminate
    end; intros [= <- <-]; cbn [len]; lia.
Qed.

(* The terminals that look at a second character.  In each of the 256 cases for that character the rest is the
   text behind one or two characters. *)
Ltac second_char r :=
  let c1 := fresh "c" in let r1 := fresh "r" in
  destruct r as [|c1 r1];
  [|destruct c1 as [[|] [|] [|] [|] [|] [|] [|] [|]]];
  cbn [consumed len]; try exact I; try exact (le_n _); try (apply after_cmp_consumed; cbn [len]; lia).

Lemma eq_len r : consumed (match r with
                     | String "=" r1 => after_cmp FEq r1
                     | String ">" r1 => LTok (TSym SArrow) r1
                     | _ => LTok (TSym SAssign) r
                     end) (S (len r)).
Proof. second_char r. lia. Qed.
Lemma ne_len r : consumed (match r with String "=" r1 => after_cmp FNe r1 | _ => LErr end) (S (len r)).
Proof. second_char r. Qed.
Lemma lt_len r : consumed (match r with String "=" r1 => after_cmp FLe r1 | _ => after_cmp FLt r end) (S (len r)).
Proof.
  pose proof (after_cmp_consumed FLt r (S (len r)) (le_n _)) as D. revert D. generalize (after_cmp FLt r) as d. intros d D.
  destruct r as [|c r1]; [exact D|]. destruct c as [[|] [|] [|] [|] [|] [|] [|] [|]]; try exact D.
  apply after_cmp_consumed. cbn [len]. lia.
Qed.
Lemma gt_len r : consumed (match r with String "=" r1 => after_cmp FGe r1 | _ => after_cmp FGt r end) (S (len r)).
Proof.
  pose proof (after_cmp_consumed FGt r (S (len r)) (le_n _)) as D. revert D. generalize (after_cmp FGt r) as d. intros d D.
  destruct r as [|c r1]; [exact D|]. destruct c as [[|] [|] [|] [|] [|] [|] [|] [|]]; try exact D.
  apply after_cmp_consumed. cbn [len]. lia.
Qed.
Lemma slash_len r : consumed (match r with String "/" r1 => LSkip (comment_rest r1) | _ => LTok (TSym SSlash) r end) (S (len r)).
Proof. second_char r. pose proof (comment_rest_len r0). lia. Qed.
Lemma colon_len r : consumed (match skip_ws r with
                        | String "c" (String "n" (String "s" r1)) => LTok TColonCns r1
                        | _ => LTok (TSym SColon) r
                        end) (S (len r)).
Proof.
  pose proof (skip_ws_le r) as H.
  destruct (skip_ws r) as [|a s1]; [exact (le_n _)|].
  repeat (match goal with |- context [match ?x with _ => _ end] => is_var x; destruct x end; try exact (le_n _)).
  cbn [consumed len] in *. lia.
Qed.

Lemma scan_len s : consumed (scan s) (len s).
Proof.
  unfold scan. destruct s as [|c r]; [exact I|]. cbn [len].
  destruct (is_lower c || is_upper c) eqn:Ew.
  { pose proof (skip_while_len is_wordc r). cbn [skip_while consumed].
    assert (Hw : is_wordc c = true) by (unfold is_wordc; rewrite Ew; reflexivity).
    rewrite Hw. lia. }
  destruct (Ascii.eqb c "0").
  { pose proof (skip_ws_le r). destruct (zero_cmp (skip_ws r)) as [[o r']|] eqn:E; cbn [consumed]; [apply zero_cmp_len in E; lia|lia]. }
  destruct (is_digit c) eqn:Ed.
  { destruct (n_of_string _); [|exact I]. cbn [skip_while consumed]. rewrite Ed. pose proof (skip_while_len is_digit r). lia. }
  destruct c as [[|] [|] [|] [|] [|] [|] [|] [|]]; try exact I; try exact (le_n _);
    first [apply gt_len | apply lt_len | apply eq_len | apply colon_len | apply slash_len | apply ne_len].
Qed.

Theorem lex_stable : forall n m s, len s < n -> len s < m -> lex n s = lex m s.
Proof.
  induction n as [|n IH]; intros m s Hn Hm; [lia|].
  destruct m as [|m]; [lia|].
  cbn [lex]. pose proof (skip_ws_le s) as Hs.
  destruct (skip_ws s) as [|c r] eqn:E; [reflexivity|].
  pose proof (scan_len (String c r)) as Hl.
  destruct (scan (String c r)) as [t r'|r'|]; [| |reflexivity]; cbn [consumed] in Hl.
  - rewrite (IH m r') by lia. reflexivity.
  - apply IH; lia.
Qed.

Theorem lex_fuel_suffices : forall s n, len s < n -> lex n s = lex_string s.
Proof. intros s n H. unfold lex_string. apply lex_stable; lia. Qed.
