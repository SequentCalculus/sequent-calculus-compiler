(* C15, the checker on the well-typed terms of the fragment without type parameters / type arguments:
   completeness of the checker as it is (check_term_gen true: Constructor::check and New::check first create the
   instance of the expected type) with respect to the declarative rules, and, by the same induction
   ([check_term_ran]), what the code before that fix does: it succeeds or reports Undefined. *)
From Coq Require Import List ZArith String Bool Permutation Lia.
From SCC Require Import Base.Sexp Lang.SynUtil Lang.FunSyn Model.Check Sem.FunTyping
  Proof.FunInd Proof.FunEq Proof.CheckAnn Proof.TypingReject Proof.CheckBuild Proof.StringFacts Proof.CheckMono Proof.CheckMonoSound.
Import ListNotations.
Open Scope list_scope.

Definition ctx_wf (ts : list tdecl) (c : fctx) : bool := forallb (fun b => wf_ty ts (fbty b)) c.

Record wf_world (ts : list tdecl) (fs : list fdef) : Prop := {
  WF_sigs : forall td s, In td ts -> In s (td_xtors td) ->
              ctx_wf ts (xs_args s) = true /\ (forall r, xs_ret s = Some r -> wf_ty ts r = true);
  WF_defs : forall d, In d fs -> ctx_wf ts (fdctx d) = true /\ wf_ty ts (fdret d) = true
}.

Lemma swap_remove_first_some : forall {X} (f : X -> bool) l y, In y l -> f y = true ->
  exists x l', swap_remove_first f l = Some (x, l').
Proof.
  induction l as [|z r IH]; intros y Hin Hf; [destruct Hin|]. simpl.
  destruct (f z) eqn:Ez.
  - destruct (pop_last r) as [[m w]|]; eauto.
  - destruct Hin as [->|Hin]; [congruence|]. destruct (IH y Hin Hf) as [x [l' ->]]. eauto.
Qed.

Section Complete.
  Variable ts : list tdecl.
  Variable fs : list fdef.
  Hypothesis W : mono_world ts fs.

  Lemma ctx_wf_in : forall c b, ctx_wf ts c = true -> In b c -> wf_ty ts (fbty b) = true.
  Proof. intros c b H Hin. unfold ctx_wf in H. rewrite forallb_forall in H. auto. Qed.
  Lemma ctx_wf_app : forall a b, ctx_wf ts a = true -> ctx_wf ts b = true -> ctx_wf ts (a ++ b) = true.
  Proof. intros a b Ha Hb. unfold ctx_wf in *. rewrite forallb_app, Ha, Hb. reflexivity. Qed.
  Lemma ctx_wf_zip : forall xs sg, ctx_wf ts sg = true -> ctx_wf ts (zip_names xs sg) = true.
  Proof.
    induction xs as [|x r IH]; intros sg H; simpl; [reflexivity|]. destruct sg as [|b br]; [reflexivity|].
    simpl in *. apply andb_true_iff in H. destruct H as [H1 H2]. rewrite H1. simpl. auto.
  Qed.

  Lemma E_prd : forall ctx v T, is_prd (E ctx) v T = true -> lookup_var ctx v = COk T.
  Proof.
    intros ctx v T H. unfold is_prd in H. rewrite E_lookup in H. unfold lookup_var.
    destruct (lookup_last ctx v) as [b|]; [|discriminate]. destruct (fbchi b); [|discriminate].
    apply fty_eqb_eq in H. subst. reflexivity.
  Qed.
  Lemma E_cns : forall ctx v T, cns_ty (E ctx) v = Some T -> lookup_covar ctx v = COk T /\ exists b, In b ctx /\ fbty b = T.
  Proof.
    intros ctx v T H. unfold cns_ty in H. rewrite E_lookup in H. unfold lookup_covar.
    destruct (lookup_last ctx v) as [b|] eqn:El; [|discriminate]. destruct (fbchi b); [discriminate|].
    inversion H; subst. split; [reflexivity|]. apply lookup_last_in in El. exists b. tauto.
  Qed.

  Lemma E_is_cns : forall ctx v T, is_cns (E ctx) v T = true -> lookup_covar ctx v = COk T.
  Proof.
    intros ctx v T H. unfold is_cns in H. destruct (E_cns ctx v T) as [Hl _]; [|exact Hl].
    unfold cns_ty. destruct (E ctx v) as [[[|] T']|]; try discriminate. apply fty_eqb_eq in H. subst. reflexivity.
  Qed.

  Lemma ann_check_ok : forall (a : option fty) T st, ann_ok a T = true -> mono_ty T = true -> wf_ty ts T = true ->
    tables ts fs st -> minv st ->
    exists st', match a with Some t => check_equality st t T | None => COk st end = COk st'
                /\ minv st' /\ same_templates st st' /\ grows st st'.
  Proof.
    intros a T st Ha Hm Hw Tb I. destruct a as [t|].
    - simpl in Ha. apply fty_eqb_eq in Ha. subst t.
      destruct (check_equality_mono_ok ts fs (W_ret _ _ W) T st Hm Tb I Hw) as [st' [H [I' [S [G _]]]]]. eauto 10.
    - exists st. splits; frame.
  Qed.

  Lemma instance_entry : forall st td, tables ts fs st -> minv st -> In td ts ->
    ahas (st_types st) (td_name td) = true ->
    aget (st_types st) (td_name td) = Some (td_pol td, [], map xs_name (td_xtors td)).
  Proof.
    intros st td Tb I Hin Ha. apply ahas_true in Ha. destruct Ha as [[[pol targs] xs] Hg].
    destruct (mi_types _ I _ _ _ _ Hg) as [-> Ht]. rewrite Hg.
    rewrite (t_tt _ _ _ Tb) in Ht.
    rewrite (find_type_unique ts td (proj1 (names_ok_parts ts fs (W_names _ _ W))) Hin) in Ht. simpl in Ht. unfold tt_val in Ht.
    inversion Ht; subst. reflexivity.
  Qed.
  Lemma instance_ctor : forall st td x s, tables ts fs st -> minv st -> In td ts -> td_pol td = FData ->
    ahas (st_types st) (td_name td) = true -> find_xsig td x = Some s ->
    aget (st_ctors st) x = Some (xs_args s).
  Proof.
    intros st td x s Tb I Hin Hp Ha Hs. pose proof (instance_entry st td Tb I Hin Ha) as Hg. rewrite Hp in Hg.
    destruct (find_xsig_spec _ _ _ Hs) as [Hsin Hn].
    destruct (mi_ctors_of _ I _ _ x Hg) as [sg [Hc Ht]]; [rewrite <- Hn; apply in_map; assumption|].
    rewrite Hc. f_equal. eapply ctor_template_sig; eassumption.
  Qed.
  Lemma instance_dtor : forall st td x s, tables ts fs st -> minv st -> In td ts -> td_pol td = FCodata ->
    ahas (st_types st) (td_name td) = true -> find_xsig td x = Some s ->
    exists r, xs_ret s = Some r /\ aget (st_dtors st) x = Some (xs_args s, r).
  Proof.
    intros st td x s Tb I Hin Hp Ha Hs. pose proof (instance_entry st td Tb I Hin Ha) as Hg. rewrite Hp in Hg.
    destruct (find_xsig_spec _ _ _ Hs) as [Hsin Hn].
    destruct (mi_dtors_of _ I _ _ x Hg) as [[sg r] [Hc Ht]]; [rewrite <- Hn; apply in_map; assumption|].
    destruct (dtor_template_sig ts fs W _ _ _ _ _ _ Tb Hin Hp Hs Ht) as [-> Hr]. eauto.
  Qed.

  Lemma nodup_names_no_dups_go : forall l seen, nodup l = true -> (forall x, In x l -> ~ In x seen) ->
    names_no_dups_go seen l = COk tt.
  Proof.
    induction l as [|x r IH]; intros seen Hn Hs; simpl; [reflexivity|].
    simpl in Hn. apply andb_true_iff in Hn. destruct Hn as [Hm Hn].
    destruct (mem_name x seen) eqn:E.
    - exfalso. apply (Hs x (or_introl eq_refl)). apply mem_In. exact E.
    - apply IH; [assumption|]. intros y Hy [<-|Hin].
      + assert (mem x r = true) by (apply mem_In; assumption). rewrite H in Hm. discriminate.
      + eapply Hs; [right; eassumption|assumption].
  Qed.
  Lemma nodup_names_no_dups : forall l, nodup l = true -> names_no_dups l = COk tt.
  Proof. intros l H. apply nodup_names_no_dups_go; [assumption|intros ? ? []]. Qed.

  Lemma prep_clauses_in : forall chk cls pc, In pc (prep_clauses chk cls) -> In (clause_of pc) cls.
  Proof. intros chk cls pc H. rewrite <- (prep_clauses_map chk cls). apply in_map. assumption. Qed.
  Lemma prep_clauses_length : forall chk cls, List.length (prep_clauses chk cls) = List.length cls.
  Proof. intros. rewrite <- (prep_clauses_map chk cls) at 2. rewrite map_length. reflexivity. Qed.
  Lemma clause_of_xtor : forall pc, clause_xtor (clause_of pc) = pc_xtor pc.
  Proof. reflexivity. Qed.

  Lemma wf_decl_mono : forall td, In td ts -> wf_ty ts (FDecl (td_name td) []) = true.
  Proof.
    intros td Hin. simpl.
    rewrite (find_type_unique ts td (proj1 (names_ok_parts ts fs (W_names _ _ W))) Hin), (W_params _ _ W td Hin). reflexivity.
  Qed.
  Lemma lookup_or_template_complete : forall pol st x td sg,
    tables ts fs st -> minv st -> find_xtor ts pol x = Some (td, sg) ->
    exists st1, lookup_ty_for_xtor_or_template pol st x [] = COk (FDecl (td_name td) [], map xs_name (td_xtors td), st1)
                /\ minv st1 /\ same_templates st st1 /\ grows st st1 /\ ahas (st_types st1) (td_name td) = true.
  Proof.
    intros pol st x td sg Tb I Hf. pose proof (find_xtor_in _ _ _ _ _ Hf) as [Hin [Hp Hs]].
    unfold lookup_ty_for_xtor_or_template. rewrite print_targs_nil, sapp_nil_r.
    destruct (lookup_ty_for_xtor pol st x) as [[ty xs]|] eqn:El.
    - destruct (lookup_ty_for_xtor_mono _ _ _ _ _ I El) as [n [-> [Hg Hx]]].
      destruct (mi_types _ I _ _ _ _ Hg) as [_ Ht].
      destruct (template_type ts fs _ _ _ _ Tb Ht) as [td' [Hin' [_ [Hn [Hp' Hxs]]]]].
      destruct (xtor_of_type ts fs W td' x Hin') as [s' [_ [Hfx' _]]]; [rewrite Hxs; assumption|].
      rewrite Hp', Hf in Hfx'. inversion Hfx'; subst td'. subst.
      exists st. splits; frame. unfold ahas. rewrite Hg. reflexivity.
    - unfold lookup_ty_template_for_xtor. rewrite (t_tt_list _ _ _ Tb), find_template_find_xtor, Hf. simpl.
      pose proof (wf_decl_mono td Hin) as Hw.
      destruct (ty_check_mono_ok ts fs (W_ret _ _ W) (FDecl (td_name td) []) st eq_refl Tb I Hw) as [st1 [H1 [I1 [S1 [G1 Hi]]]]].
      exists st1. split; [|splits; assumption].
      (* unfold the lookup around ty_check by conversion: simpl would unfold ty_check itself *)
      transitivity (doc st1' <- ty_check (FDecl (td_name td) []) st; COk (FDecl (td_name td) [], map xs_name (td_xtors td), st1')); [reflexivity|].
      rewrite H1. reflexivity.
  Qed.
End Complete.

(* One induction for the code as it is (eager = true: it succeeds) and for the code before fix d524b1f
   (eager = false: it succeeds or reports Undefined, when the instance of an expected type was never created):
   [ran eager st r]: r is a success whose table is framed by st, or - only for eager = false - the error Undefined. *)
Definition ran (eager : bool) (st : symtab) {X} (r : cres (X * symtab)) : Prop :=
  (exists x, r = COk x /\ minv (snd x) /\ same_templates st (snd x) /\ grows st (snd x))
  \/ (eager = false /\ r = CErr EUndefined).

Section Ran.
  Variable ts : list tdecl.
  Variable fs : list fdef.
  Hypothesis W : mono_world ts fs.
  Hypothesis WF : wf_world ts fs.

  Ltac undef := right; split; [first [assumption|reflexivity]|reflexivity].

  Definition ran_at (eager : bool) (t : fterm) : Prop :=
    forall st ctx T,
      mono_term t = true -> mono_ctx ctx = true -> mono_ty T = true -> tables ts fs st -> minv st ->
      ctx_wf ts ctx = true -> wf_ty ts T = true ->
      chk ts fs (E ctx) t T = true ->
      ran eager st (check_term_gen eager t st ctx T).

  Lemma check_args_with_ran : forall eager args, Forall (ran_at eager) args ->
    forall tys st ctx,
      mono_terms args = true -> mono_ctx ctx = true -> mono_ctx tys = true -> tables ts fs st -> minv st ->
      ctx_wf ts ctx = true -> ctx_wf ts tys = true ->
      chk_args_with (chk ts fs) (E ctx) [] [] args tys = true ->
      ran eager st (check_args_with (check_term_gen eager) args tys st ctx).
  Proof.
    intros eager args HF. induction HF as [|a ar Ha _ IH]; intros tys st ctx Hm Hc Ht Tb I Hw Hwt Hk.
    - destruct tys; [|discriminate]. simpl. left. exists ([], st). split; [reflexivity|]. simpl. splits; frame.
    - destruct tys as [|b br]; [discriminate|]. simpl in Hm, Ht, Hwt.
      apply andb_true_iff in Hm. destruct Hm as [Hma Hmr]. apply andb_true_iff in Ht. destruct Ht as [Htb Htr].
      apply andb_true_iff in Hwt. destruct Hwt as [Hwb Hwr].
      simpl in Hk. rewrite inst_nil in Hk. apply andb_true_iff in Hk. destruct Hk as [Hka Hkr].
      simpl. destruct (fbchi b) eqn:Ech.
      + destruct (ty_check_mono_ok ts fs (W_ret _ _ W) _ st Htb Tb I Hwb) as [st1 [H1 [I1 [S1 [G1 _]]]]]. rewrite H1. simpl.
        destruct (Ha st1 ctx (fbty b) Hma Hc Htb (tables_same _ _ _ _ Tb S1) I1 Hw Hwb Hka) as [[[a' st2] [H2 [I2 [S2 G2]]]]|[Ee Hu]];
          [|rewrite Hu; undef]. simpl in I2, S2, G2.
        rewrite H2. simpl.
        assert (S02 : same_templates st st2) by frame.
        destruct (IH br st2 ctx Hmr Hc Htr (tables_same _ _ _ _ Tb S02) I2 Hw Hwr Hkr) as [[[ar' st3] [H3 [I3 [S3 G3]]]]|[Ee Hu]];
          [|rewrite Hu; undef]. simpl in I3, S3, G3.
        rewrite H3. simpl. left. exists (a' :: ar', st3). split; [reflexivity|]. simpl. splits; frame.
      + destruct a as [v ann chi| | | | | | | | | | | | | |]; try discriminate.
        apply andb_true_iff in Hka. destruct Hka as [Hka Hchi]. apply andb_true_iff in Hka. destruct Hka as [Hcns Hann].
        pose proof (E_is_cns _ _ _ Hcns) as Hl.
        (* the model matches on the written chirality in three branches with the same body: prove the body once *)
        assert (Hgo : ran eager st (doc found <- lookup_covar ctx v;
                                   doc st1 <- match ann with Some t => check_equality st t found | None => COk st end;
                                   doc st2 <- check_equality st1 (fbty b) found;
                                   doc (ar', st3) <- check_args_with (check_term_gen eager) ar br st2 ctx;
                                   COk (FVar v (Some found) (Some FCns) :: ar', st3))).
        { rewrite Hl. simpl.
          destruct (ann_check_ok ts fs W ann (fbty b) st Hann Htb Hwb Tb I) as [st1 [H1 [I1 [S1 G1]]]]. rewrite H1. simpl.
          destruct (check_equality_mono_ok ts fs (W_ret _ _ W) (fbty b) st1 Htb (tables_same _ _ _ _ Tb S1) I1 Hwb) as [st2 [H2 [I2 [S2 [G2 _]]]]].
          rewrite H2. simpl. assert (S02 : same_templates st st2) by frame.
          destruct (IH br st2 ctx Hmr Hc Htr (tables_same _ _ _ _ Tb S02) I2 Hw Hwr Hkr) as [[[ar' st3] [H3 [I3 [S3 G3]]]]|[Ee Hu]];
            [|rewrite Hu; undef]. simpl in I3, S3, G3.
          rewrite H3. simpl. left. eexists (_, st3). split; [reflexivity|]. simpl. splits; frame. }
        destruct chi as [[|]|]; try discriminate; exact Hgo.
  Qed.

  Lemma check_args_ran : forall eager args, Forall (ran_at eager) args ->
    forall tys st ctx,
      mono_terms args = true -> mono_ctx ctx = true -> mono_ctx tys = true -> tables ts fs st -> minv st ->
      ctx_wf ts ctx = true -> ctx_wf ts tys = true ->
      chk_args_with (chk ts fs) (E ctx) [] [] args tys = true ->
      ran eager st (check_args (check_term_gen eager) args tys st ctx).
  Proof.
    intros eager args HF tys st ctx Hm Hc Ht Tb I Hw Hwt Hk. unfold check_args.
    rewrite (chk_args_length ts fs _ _ _ _ _ Hk), PeanoNat.Nat.eqb_refl. simpl.
    eapply check_args_with_ran; eassumption.
  Qed.

  Definition pc_ran (eager : bool) (pc : pclause) : Prop :=
    forall st ctx T,
      mono_ctx ctx = true -> mono_ty T = true -> tables ts fs st -> minv st ->
      ctx_wf ts ctx = true -> wf_ty ts T = true -> chk ts fs (E ctx) (pc_body pc) T = true ->
      ran eager st (pc_chk pc st ctx T).

  Lemma check_clauses_ran : forall eager (is_case : bool) T td xtors pcls st ctx,
    Forall (pc_ran eager) pcls ->
    mono_ctx ctx = true -> ctx_wf ts ctx = true -> tables ts fs st -> minv st ->
    In td ts -> td_pol td = (if is_case then FData else FCodata) ->
    (is_case = true -> mono_ty T = true /\ wf_ty ts T = true) ->
    ahas (st_types st) (td_name td) = true ->
    NoDup xtors -> (forall x, In x xtors -> In x (map xs_name (td_xtors td))) ->
    (forall x, In x xtors -> exists pc, In pc pcls /\ pc_xtor pc = x) ->
    Forall (fun pc => clause_ok ts fs (E ctx) td [] (if is_case then Some T else None) (clause_of pc) = true) pcls ->
    ran eager st (check_clauses is_case "" T xtors pcls st ctx).
  Proof.
    intros eager is_case T td xtors. induction xtors as [|x xr IH];
      intros pcls st ctx HC Hmc Hwc Tb I Htd Hpol HT Hinst Hnd Hxs Hex Hok.
    - simpl. left. exists ([], pcls, st). split; [reflexivity|]. simpl. splits; frame.
    - simpl. destruct (Hex x (or_introl eq_refl)) as [pc0 [Hpc0 Hx0]].
      destruct (swap_remove_first_some (fun c => String.eqb (pc_xtor c) x) pcls pc0 Hpc0) as [cl [pcls' Es]];
        [rewrite Hx0; apply String.eqb_refl|].
      rewrite Es. pose proof (swap_remove_first_spec _ _ _ _ Es) as [Hx Hperm]. apply String.eqb_eq in Hx.
      assert (Hall : forall (P : pclause -> Prop), Forall P pcls -> P cl /\ Forall P pcls').
      { intros P HP. assert (HP' : Forall P (cl :: pcls')) by (eapply Permutation_Forall; [apply Permutation_sym; eassumption|assumption]).
        inversion HP'; auto. }
      destruct (Hall _ HC) as [HCcl HCr]. destruct (Hall _ Hok) as [Hokcl Hokr].
      rewrite sapp_nil_r.
      unfold clause_of, clause_ok in Hokcl. rewrite Hx in Hokcl.
      destruct (find_xsig td x) as [s|] eqn:Hs; [|discriminate].
      apply andb_true_iff in Hokcl. destruct Hokcl as [Hokcl Hbody]. apply andb_true_iff in Hokcl. destruct Hokcl as [Hnod Hlen].
      destruct (find_xsig_spec _ _ _ Hs) as [Hsin _].
      destruct (W_sigs _ _ W td s Htd Hsin) as [Hms Hmr]. destruct (WF_sigs _ _ WF td s Htd Hsin) as [Hws Hwr].
      rewrite (W_params _ _ W td Htd), extend_sig_nil in Hbody.
      assert (Hsig : exists bty,
                (if is_case
                 then match aget (st_ctors st) x with Some sg => COk (sg, T) | None => CErr EUndefined end
                 else match aget (st_dtors st) x with Some (sg, ret) => COk (sg, ret) | None => CErr EUndefined end)
                = COk (xs_args s, bty)
                /\ mono_ty bty = true /\ wf_ty ts bty = true
                /\ chk ts fs (E (ctx ++ zip_names (pc_names cl) (xs_args s))) (pc_body cl) bty = true).
      { unfold E. rewrite env_of_ctx_app. fold (E ctx). destruct is_case.
        - rewrite (instance_ctor ts fs W st td x s Tb I Htd Hpol Hinst Hs). exists T. destruct (HT eq_refl). auto.
        - destruct (instance_dtor ts fs W st td x s Tb I Htd Hpol Hinst Hs) as [r [Hr Hd]]. rewrite Hd. exists r.
          rewrite Hr in Hbody, Hmr. rewrite inst_nil in Hbody. simpl in Hmr. auto. }
      destruct Hsig as [bty [Hsig [Hmb [Hwb Hkb]]]]. rewrite Hsig. simpl.
      rewrite (nodup_names_no_dups _ Hnod). simpl.
      unfold add_types. rewrite Hlen. simpl.
      assert (Hmc' : mono_ctx (ctx ++ zip_names (pc_names cl) (xs_args s)) = true)
        by (apply mono_ctx_app; [assumption|apply mono_zip_names; assumption]).
      assert (Hwc' : ctx_wf ts (ctx ++ zip_names (pc_names cl) (xs_args s)) = true)
        by (apply ctx_wf_app; [assumption|apply ctx_wf_zip; assumption]).
      destruct (HCcl st _ bty Hmc' Hmb Tb I Hwc' Hwb Hkb) as [[[body' st1] [Hb [I1 [S1 G1]]]]|[Ee Hu]]; [|rewrite Hu; undef].
      simpl in I1, S1, G1. rewrite Hb. simpl.
      inversion Hnd as [|? ? Hnotin Hnd']; subst.
      destruct (IH pcls' st1 ctx HCr Hmc Hwc (tables_same _ _ _ _ Tb S1) I1 Htd Hpol HT (G1 _ Hinst) Hnd')
        as [[[[rest leftover] st2] [Hr [I2 [S2 G2]]]]|[Ee Hu]]; try assumption.
      + intros y Hy. apply Hxs. right. assumption.
      + intros y Hy. destruct (Hex y (or_intror Hy)) as [pc [Hpc Hpx]].
        exists pc. split; [|assumption].
        apply (Permutation_in _ (Permutation_sym Hperm)) in Hpc. destruct Hpc as [<-|Hpc]; [|assumption].
        exfalso. apply Hnotin. rewrite <- Hx, Hpx. assumption.
      + simpl in I2, S2, G2. rewrite Hr. simpl. left. eexists (_, leftover, st2). split; [reflexivity|]. simpl. splits; frame.
      + rewrite Hu. undef.
  Qed.

  Lemma prep_clauses_ran : forall eager cls,
    Forall (fun c => ran_at eager (clause_body c)) cls -> mono_clauses cls = true ->
    Forall (pc_ran eager) (prep_clauses (check_term_gen eager) cls).
  Proof.
    intros eager cls HF. induction HF as [|[p x ns c b] r Hc _ IH]; intros Hm; simpl; constructor.
    - simpl in Hm. apply andb_true_iff in Hm. destruct Hm as [Hb _].
      unfold pc_ran. simpl. intros. eapply Hc; eassumption.
    - apply IH. simpl in Hm. apply andb_true_iff in Hm. tauto.
  Qed.

  Lemma clauses_ran_result : forall eager (is_case : bool) T td cls st ctx,
    Forall (fun c => ran_at eager (clause_body c)) cls ->
    mono_clauses cls = true -> mono_ctx ctx = true -> ctx_wf ts ctx = true -> tables ts fs st -> minv st ->
    In td ts -> td_pol td = (if is_case then FData else FCodata) ->
    (is_case = true -> mono_ty T = true /\ wf_ty ts T = true) ->
    ahas (st_types st) (td_name td) = true ->
    same_names (map clause_xtor cls) (map xs_name (td_xtors td)) = true ->
    chk_clauses_with (chk ts fs) (E ctx) td [] (if is_case then Some T else None) cls = true ->
    (exists cls' st', check_clauses is_case "" T (map xs_name (td_xtors td)) (prep_clauses (check_term_gen eager) cls) st ctx
                      = COk (cls', [], st') /\ minv st' /\ same_templates st st' /\ grows st st')
    \/ (eager = false
        /\ check_clauses is_case "" T (map xs_name (td_xtors td)) (prep_clauses (check_term_gen eager) cls) st ctx = CErr EUndefined).
  Proof.
    intros eager is_case T td cls st ctx HC Hm Hmc Hwc Tb I Htd Hpol HT Hinst Hsn Hk.
    assert (HS : Forall (fun c => sound_at ts fs (clause_body c)) cls).
    { apply Forall_forall. intros c _. apply check_term_gen_sound. exact W. }
    pose proof (prep_clauses_sound ts fs eager cls HS Hm) as HPS.
    assert (Hnd : nodup (map xs_name (td_xtors td)) = true).
    { eapply xtor_names_of_type_nodup; [apply (nodup_xtors ts fs (W_names _ _ W))|eassumption|reflexivity]. }
    destruct (check_clauses_ran eager is_case T td (map xs_name (td_xtors td)) (prep_clauses (check_term_gen eager) cls) st ctx
                (prep_clauses_ran eager cls HC Hm) Hmc Hwc Tb I Htd Hpol HT Hinst (nodup_NoDup _ Hnd) (fun x H => H))
      as [[[[cls' leftover] st'] [Hr [I' [S G]]]]|[Ee Hu]]; [| |simpl in I', S, G|right; split; assumption].
    - intros x Hx. pose proof (same_names_covers _ _ Hsn x Hx) as Hin.
      apply in_map_iff in Hin. destruct Hin as [c [Hcx Hc]].
      rewrite <- (prep_clauses_map (check_term_gen eager) cls) in Hc. apply in_map_iff in Hc. destruct Hc as [pc [<- Hpc]].
      exists pc. split; assumption.
    - apply Forall_forall. intros pc Hpc. rewrite chk_clauses_forallb, forallb_forall in Hk.
      apply Hk. eapply prep_clauses_in. eassumption.
    - left. exists cls', st'. splits; try assumption.
      assert (HT' : is_case = true -> mono_ty T = true) by (intros E0; apply HT; assumption).
      destruct (check_clauses_sound ts fs W is_case T td _ _ st ctx cls' leftover st' HPS Hmc Tb I Htd (fun x H => H) Hpol HT' Hr)
        as [used [Hp [Hmap _]]].
      assert (Hlen : List.length leftover = 0).
      { apply Permutation_length in Hp. rewrite app_length, prep_clauses_length in Hp.
        assert (List.length used = List.length (map xs_name (td_xtors td))) by (rewrite <- Hmap, map_length; reflexivity).
        unfold same_names in Hsn. apply andb_true_iff in Hsn. destruct Hsn as [Hsn _]. apply andb_true_iff in Hsn. destruct Hsn as [_ Hl].
        apply PeanoNat.Nat.eqb_eq in Hl. rewrite map_length in Hl. lia. }
      destruct leftover; [exact Hr|discriminate].
  Qed.

  (* simpl on check_term_gen must stop at ty_check *)
  Local Opaque ty_check.

  (* run a sub-check: success with frame, or Undefined (which propagates) *)
  Ltac sub X a' st2 H2 I2 S2 G2 :=
    destruct X as [[[a' st2] [H2 [I2 [S2 G2]]]]|[Ee Hu]]; [simpl in I2, S2, G2; rewrite H2; simpl|rewrite Hu; undef].
  Ltac done_ok := left; eexists (_, _); split; [reflexivity|simpl; splits; frame].

  Theorem check_term_ran : forall eager t, ran_at eager t.
  Proof.
    intros eager t. induction t using fterm_ind'; unfold ran_at;
      intros st ctx T Hm Hc HT Tb I Hw HwT Hk; simpl in Hk; simpl in Hm.
    - (* FVar *)
      apply andb_true_iff in Hk. destruct Hk as [Hk Hchi]. apply andb_true_iff in Hk. destruct Hk as [Hprd Hann].
      pose proof (E_prd _ _ _ Hprd) as Hl.
      destruct (ann_check_ok ts fs W ty T st Hann HT HwT Tb I) as [st1 [H1 [I1 [S1 G1]]]].
      destruct (check_equality_mono_ok ts fs (W_ret _ _ W) T st1 HT (tables_same _ _ _ _ Tb S1) I1 HwT) as [st2 [H2 [I2 [S2 [G2 _]]]]].
      (* as for a consumer argument: one body under the three branches on chi *)
      assert (Hgo : ran eager st (doc found <- lookup_var ctx v;
                     doc st1 <- match ty with Some t => check_equality st t found | None => COk st end;
                     doc st2 <- check_equality st1 T found; COk (FVar v (Some T) (Some FPrd), st2))).
      { rewrite Hl. simpl. rewrite H1. simpl. rewrite H2. simpl. done_ok. }
      simpl. destruct chi as [[|]|]; try discriminate; exact Hgo.
    - (* FLit *)
      apply fty_eqb_eq in Hk. subst T. simpl.
      destruct (check_equality_mono_ok ts fs (W_ret _ _ W) FI64 st eq_refl Tb I eq_refl) as [st1 [H1 [I1 [S1 [G1 _]]]]].
      rewrite H1. simpl. done_ok.
    - (* FOp *)
      apply andb_true_iff in Hm. destruct Hm as [Hm1 Hm2].
      apply andb_true_iff in Hk. destruct Hk as [Hk K2]. apply andb_true_iff in Hk. destruct Hk as [K0 K1].
      apply fty_eqb_eq in K0. subst T. simpl.
      destruct (check_equality_mono_ok ts fs (W_ret _ _ W) FI64 st eq_refl Tb I eq_refl) as [st1 [H1 [I1 [S1 [G1 _]]]]].
      rewrite H1. simpl.
      sub (IHt1 st1 ctx FI64 Hm1 Hc eq_refl (tables_same _ _ _ _ Tb S1) I1 Hw eq_refl K1) a' st2 H2 I2 S2 G2.
      assert (S02 : same_templates st st2) by frame.
      sub (IHt2 st2 ctx FI64 Hm2 Hc eq_refl (tables_same _ _ _ _ Tb S02) I2 Hw eq_refl K2) b' st3 H3 I3 S3 G3.
      done_ok.
    - (* FIfC *)
      apply andb_true_iff in Hm. destruct Hm as [Hm Hm4]. apply andb_true_iff in Hm. destruct Hm as [Hm Hm3].
      apply andb_true_iff in Hm. destruct Hm as [Hm1 Hm2].
      apply andb_true_iff in Hk. destruct Hk as [Hk K4]. apply andb_true_iff in Hk. destruct Hk as [Hk K3].
      apply andb_true_iff in Hk. destruct Hk as [K1 K2].
      simpl.
      sub (IHt1 st ctx FI64 Hm1 Hc eq_refl Tb I Hw eq_refl K1) a' st1 H1 I1 S1 G1.
      assert (Hb : ran eager st1 (match b with
                                | None => COk (None, st1)
                                | Some b0 => doc (b1, s0) <- check_term_gen eager b0 st1 ctx FI64; COk (Some b1, s0)
                                end)).
      { destruct b as [b0|].
        - destruct (H _ eq_refl st1 ctx FI64 Hm2 Hc eq_refl (tables_same _ _ _ _ Tb S1) I1 Hw eq_refl K2) as [[[b1 st2] [H2 [I2 [S2 G2]]]]|[Ee Hu]];
            [|rewrite Hu; undef].
          rewrite H2. simpl. left. exists (Some b1, st2). split; [reflexivity|]. exact (conj I2 (conj S2 G2)).
        - left. exists (None, st1). split; [reflexivity|]. simpl. splits; frame. }
      destruct Hb as [[[b' st2] [H2 [I2 [S2 G2]]]]|[Ee Hu]]; [simpl in I2, S2, G2; rewrite H2; simpl|rewrite Hu; undef].
      assert (S02 : same_templates st st2) by frame.
      sub (IHt2 st2 ctx T Hm3 Hc HT (tables_same _ _ _ _ Tb S02) I2 Hw HwT K3) th' st3 H3 I3 S3 G3.
      assert (S03 : same_templates st st3) by frame.
      sub (IHt3 st3 ctx T Hm4 Hc HT (tables_same _ _ _ _ Tb S03) I3 Hw HwT K4) el' st4 H4 I4 S4 G4.
      done_ok.
    - (* FPrint *)
      apply andb_true_iff in Hm. destruct Hm as [Hm1 Hm2].
      apply andb_true_iff in Hk. destruct Hk as [K1 K2]. simpl.
      sub (IHt1 st ctx FI64 Hm1 Hc eq_refl Tb I Hw eq_refl K1) a' st1 H1 I1 S1 G1.
      sub (IHt2 st1 ctx T Hm2 Hc HT (tables_same _ _ _ _ Tb S1) I1 Hw HwT K2) n' st2 H2 I2 S2 G2.
      done_ok.
    - (* FLet *)
      apply andb_true_iff in Hm. destruct Hm as [Hm Hm3]. apply andb_true_iff in Hm. destruct Hm as [Hm1 Hm2].
      apply andb_true_iff in Hk. destruct Hk as [Hk K2]. apply andb_true_iff in Hk. destruct Hk as [Kw K1]. simpl.
      destruct (ty_check_mono_ok ts fs (W_ret _ _ W) vty st Hm1 Tb I Kw) as [st1 [H1 [I1 [S1 [G1 _]]]]]. rewrite H1. simpl.
      sub (IHt1 st1 ctx vty Hm2 Hc Hm1 (tables_same _ _ _ _ Tb S1) I1 Hw Kw K1) a' st2 H2 I2 S2 G2.
      assert (S02 : same_templates st st2) by frame.
      assert (Hc' : mono_ctx (ctx ++ [mkfb v FPrd vty]) = true).
      { apply mono_ctx_app; [assumption|]. simpl. rewrite Hm1. reflexivity. }
      assert (Hw' : ctx_wf ts (ctx ++ [mkfb v FPrd vty]) = true).
      { apply ctx_wf_app; [assumption|]. simpl. rewrite Kw. reflexivity. }
      rewrite <- E_snoc in K2.
      sub (IHt2 st2 _ T Hm3 Hc' HT (tables_same _ _ _ _ Tb S02) I2 Hw' HwT K2) b' st3 H3 I3 S3 G3.
      done_ok.
    - (* FCall *)
      rewrite mono_terms_eq in Hm.
      destruct (find_def fs f) as [d|] eqn:Ef; [|discriminate].
      apply andb_true_iff in Hk. destruct Hk as [Kr Ka]. apply fty_eqb_eq in Kr. subst T.
      assert (Hdin : In d fs) by (unfold find_def in Ef; apply find_some in Ef; tauto).
      destruct (W_defs _ _ W d Hdin) as [Hmd Hmr]. destruct (WF_defs _ _ WF d Hdin) as [Hwd Hwr].
      simpl. rewrite (t_df _ _ _ Tb), Ef. simpl.
      destruct (check_equality_mono_ok ts fs (W_ret _ _ W) (fdret d) st Hmr Tb I Hwr) as [st1 [H1 [I1 [S1 [G1 _]]]]].
      rewrite H1. simpl.
      sub (check_args_ran eager args H (fdctx d) st1 ctx Hm Hc Hmd (tables_same _ _ _ _ Tb S1) I1 Hw Hwd Ka) args' st2 H2 I2 S2 G2.
      done_ok.
    - (* FCtor *)
      rewrite mono_terms_eq in Hm.
      destruct T as [|n targs]; [discriminate|]. pose proof (mono_ty_decl _ _ HT) as ->.
      destruct (find_type ts n) as [td|] eqn:Eft; [|discriminate].
      apply andb_true_iff in Hk. destruct Hk as [Hk Ka]. apply andb_true_iff in Hk. destruct Hk as [Kp _].
      apply fpol_eqb_eq in Kp.
      destruct (find_xsig td x) as [s|] eqn:Es; [|discriminate].
      pose proof (find_type_in _ _ _ Eft) as Hin. pose proof (find_type_name _ _ _ Eft) as Hn.
      destruct (find_xsig_spec _ _ _ Es) as [Hsin Hsn].
      destruct (W_sigs _ _ W td s Hin Hsin) as [Hms _]. destruct (WF_sigs _ _ WF td s Hin Hsin) as [Hws _].
      rewrite (W_params _ _ W td Hin) in Ka.
      destruct eager.
      + (* the instance exists after the check of the expected type *)
        simpl.
        destruct (ty_check_mono_ok ts fs (W_ret _ _ W) (FDecl n []) st eq_refl Tb I HwT) as [st0 [H0 [I0 [S0 [G0 Hi0]]]]].
        simpl in Hi0. rewrite <- Hn in Hi0. pose proof (tables_same _ _ _ _ Tb S0) as Tb0.
        rewrite H0. simpl. rewrite sapp_nil_r.
        rewrite (instance_ctor ts fs W st0 td x s Tb0 I0 Hin Kp Hi0 Es).
        pose proof (instance_entry ts fs W st0 td Tb0 I0 Hin Hi0) as Hent. rewrite Kp in Hent.
        assert (Hxin : In x (map xs_name (td_xtors td))) by (rewrite <- Hsn; apply in_map; assumption).
        destruct (lookup_ty_for_xtor_found st0 FData x _ _ I0 Hent Hxin) as [ty [xs' El]]. rewrite El.
        destruct (lookup_ty_for_xtor_mono _ _ _ _ _ I0 El) as [n' [-> [Hg' Hx']]].
        destruct (mi_types _ I0 _ _ _ _ Hg') as [_ Ht'].
        destruct (template_type ts fs _ _ _ _ Tb0 Ht') as [td' [Hin' [_ [Hn' [Hp' Hxs']]]]].
        destruct (xtor_of_type ts fs W td' x Hin') as [s' [_ [Hfx' _]]]; [rewrite Hxs'; assumption|].
        rewrite Hp', (find_xtor_unique ts FData td x s (nodup_xtors ts fs (W_names _ _ W) _) Hin Kp Es) in Hfx'. inversion Hfx'; subst td' s'.
        sub (check_args_ran true args H (xs_args s) st0 ctx Hm Hc Hms Tb0 I0 Hw Hws Ka) args' st1 H1 I1 S1 G1.
        assert (S01 : same_templates st st1) by frame.
        rewrite Hn' in Hn. subst n'.
        destruct (check_equality_mono_ok ts fs (W_ret _ _ W) (FDecl n []) st1 eq_refl (tables_same _ _ _ _ Tb S01) I1 HwT) as [st2 [H2 [I2 [S2 [G2 _]]]]].
        rewrite H2. simpl. done_ok.
      + (* before fix d524b1f: the instance exists only if something created it *)
        simpl. rewrite sapp_nil_r.
        destruct (aget (st_ctors st) x) as [types|] eqn:Ec; [|undef].
        destruct (mi_ctors _ I _ _ Ec) as [Htc _].
        pose proof (ctor_template_sig ts fs W _ _ _ _ _ Tb Hin Kp Es Htc) as ->.
        destruct (lookup_ty_for_xtor FData st x) as [[ty xs']|] eqn:El; [|undef].
        destruct (lookup_ty_for_xtor_mono _ _ _ _ _ I El) as [n' [-> [Hg' Hx']]].
        destruct (mi_types _ I _ _ _ _ Hg') as [_ Ht'].
        destruct (template_type ts fs _ _ _ _ Tb Ht') as [td' [Hin' [_ [Hn' [Hp' Hxs']]]]].
        destruct (xtor_of_type ts fs W td' x Hin') as [s' [_ [Hfx' _]]]; [rewrite Hxs'; assumption|].
        rewrite Hp', (find_xtor_unique ts FData td x s (nodup_xtors ts fs (W_names _ _ W) _) Hin Kp Es) in Hfx'. inversion Hfx'; subst td' s'.
        sub (check_args_ran false args H (xs_args s) st ctx Hm Hc Hms Tb I Hw Hws Ka) args' st1 H1 I1 S1 G1.
        rewrite Hn' in Hn. subst n'.
        destruct (check_equality_mono_ok ts fs (W_ret _ _ W) (FDecl n []) st1 eq_refl (tables_same _ _ _ _ Tb S1) I1 HwT) as [st2 [H2 [I2 [S2 [G2 _]]]]].
        rewrite H2. simpl. done_ok.
    - (* FDtor *)
      apply andb_true_iff in Hm. destruct Hm as [Hm Hm3]. apply andb_true_iff in Hm. destruct Hm as [Hm1 Hm2].
      rewrite mono_terms_eq in Hm3. destruct targs; [|discriminate].
      destruct (find_xtor ts FCodata x) as [[td sg]|] eqn:Ef; [|discriminate].
      apply andb_true_iff in Hk. destruct Hk as [Hk Kr]. apply andb_true_iff in Hk. destruct Hk as [Hk Ka].
      apply andb_true_iff in Hk. destruct Hk as [_ Ks].
      pose proof (find_xtor_in _ _ _ _ _ Ef) as [Hin [Hp Hs]].
      destruct (find_xsig_spec _ _ _ Hs) as [Hsin Hsn].
      destruct (W_sigs _ _ W td sg Hin Hsin) as [Hms Hmr]. destruct (WF_sigs _ _ WF td sg Hin Hsin) as [Hws Hwr].
      rewrite (W_params _ _ W td Hin) in Ka, Kr.
      destruct (xs_ret sg) as [R|] eqn:ER; [|discriminate]. rewrite inst_nil in Kr. apply fty_eqb_eq in Kr. subst R.
      simpl.
      destruct (lookup_or_template_complete ts fs W FCodata st x td sg Tb I Ef) as [st1 [H1 [I1 [S1 [G1 Hi1]]]]].
      rewrite H1. simpl.
      pose proof (wf_decl_mono ts fs W td Hin) as Hwt.
      sub (IHt st1 ctx (FDecl (td_name td) []) Hm2 Hc eq_refl (tables_same _ _ _ _ Tb S1) I1 Hw Hwt Ks) s' st2 H2 I2 S2 G2.
      assert (S02 : same_templates st st2) by frame. pose proof (tables_same _ _ _ _ Tb S02) as Tb2.
      rewrite sapp_nil_r.
      destruct (instance_dtor ts fs W st2 td x sg Tb2 I2 Hin Hp (G2 _ Hi1) Hs) as [rr [Hr Hd]]. rewrite ER in Hr. inversion Hr; subst rr.
      rewrite Hd.
      sub (check_args_ran eager args H (xs_args sg) st2 ctx Hm3 Hc Hms Tb2 I2 Hw Hws Ka) args' st3 H3 I3 S3 G3.
      assert (S03 : same_templates st st3) by frame.
      destruct (check_equality_mono_ok ts fs (W_ret _ _ W) T st3 HT (tables_same _ _ _ _ Tb S03) I3 HwT) as [st4 [H4 [I4 [S4 [G4 _]]]]].
      rewrite H4. simpl. done_ok.
    - (* FCase *)
      apply andb_true_iff in Hm. destruct Hm as [Hm Hm3]. apply andb_true_iff in Hm. destruct Hm as [Hm1 Hm2].
      rewrite mono_clauses_eq in Hm3. destruct targs; [|discriminate].
      destruct cls as [|c0 clr]; [discriminate|].
      destruct (find_xtor ts FData (clause_xtor c0)) as [[td sg]|] eqn:Ef; [|discriminate].
      apply andb_true_iff in Hk. destruct Hk as [Hk Kc]. apply andb_true_iff in Hk. destruct Hk as [Hk Ksn].
      apply andb_true_iff in Hk. destruct Hk as [_ Ks].
      pose proof (find_xtor_in _ _ _ _ _ Ef) as [Hin [Hp Hs]].
      pose proof (wf_decl_mono ts fs W td Hin) as Hwt.
      destruct c0 as [p0 x0 ns0 cx0 b0]. simpl clause_xtor in Ef.
      simpl.
      destruct (lookup_or_template_complete ts fs W FData st x0 td sg Tb I Ef) as [st1 [H1 [I1 [S1 [G1 Hi1]]]]].
      rewrite H1. simpl.
      sub (IHt st1 ctx (FDecl (td_name td) []) Hm2 Hc eq_refl (tables_same _ _ _ _ Tb S1) I1 Hw Hwt Ks) s' st2 H2 I2 S2 G2.
      assert (S02 : same_templates st st2) by frame.
      destruct (clauses_ran_result eager true T td (FClause p0 x0 ns0 cx0 b0 :: clr) st2 ctx H Hm3 Hc Hw
                  (tables_same _ _ _ _ Tb S02) I2 Hin Hp (fun _ => conj HT HwT) (G2 _ Hi1) Ksn Kc)
        as [[cls' [st3 [H3 [I3 [S3 G3]]]]]|[Ee Hu]].
      + change (prep_clauses (check_term_gen eager) (FClause p0 x0 ns0 cx0 b0 :: clr)) with
          (mkpc p0 x0 ns0 cx0 b0 (check_term_gen eager b0) :: prep_clauses (check_term_gen eager) clr) in H3.
        rewrite H3. simpl. done_ok.
      + change (prep_clauses (check_term_gen eager) (FClause p0 x0 ns0 cx0 b0 :: clr)) with
          (mkpc p0 x0 ns0 cx0 b0 (check_term_gen eager b0) :: prep_clauses (check_term_gen eager) clr) in Hu.
        rewrite Hu. undef.
    - (* FNew *)
      rewrite mono_clauses_eq in Hm.
      destruct T as [|n targs]; [discriminate|]. pose proof (mono_ty_decl _ _ HT) as ->.
      destruct (find_type ts n) as [td|] eqn:Eft; [|discriminate].
      apply andb_true_iff in Hk. destruct Hk as [Hk Kc]. apply andb_true_iff in Hk. destruct Hk as [Hk Ksn].
      apply andb_true_iff in Hk. destruct Hk as [Kp _]. apply fpol_eqb_eq in Kp.
      pose proof (find_type_in _ _ _ Eft) as Hin. pose proof (find_type_name _ _ _ Eft) as Hn.
      destruct eager.
      + simpl.
        destruct (ty_check_mono_ok ts fs (W_ret _ _ W) (FDecl n []) st eq_refl Tb I HwT) as [st0 [H0 [I0 [S0 [G0 Hi0]]]]].
        simpl in Hi0. rewrite <- Hn in Hi0. pose proof (tables_same _ _ _ _ Tb S0) as Tb0.
        rewrite H0. simpl. rewrite sapp_nil_r.
        pose proof (instance_entry ts fs W st0 td Tb0 I0 Hin Hi0) as Hent. rewrite Hn, Kp in Hent. rewrite Hent.
        destruct (clauses_ran_result true false (FDecl n []) td cls st0 ctx H Hm Hc Hw
                    Tb0 I0 Hin Kp (fun E0 => ltac:(discriminate)) Hi0 Ksn Kc)
          as [[cls' [st3 [H3 [I3 [S3 G3]]]]]|[Ee Hu]]; [|discriminate Ee].
        rewrite H3. simpl. done_ok.
      + simpl. rewrite sapp_nil_r.
        destruct (aget (st_types st) n) as [[[pol targs] dtors]|] eqn:Eg; [|undef].
        assert (Hi0 : ahas (st_types st) (td_name td) = true) by (unfold ahas; rewrite Hn, Eg; reflexivity).
        pose proof (instance_entry ts fs W st td Tb I Hin Hi0) as Hent. rewrite Hn, Eg, Kp in Hent. inversion Hent; subst.
        destruct (clauses_ran_result false false (FDecl (td_name td) []) td cls st ctx H Hm Hc Hw
                    Tb I Hin Kp (fun E0 => ltac:(discriminate)) Hi0 Ksn Kc)
          as [[cls' [st3 [H3 [I3 [S3 G3]]]]]|[Ee Hu]].
        * rewrite H3. simpl. done_ok.
        * rewrite Hu. undef.
    - (* FLabel *)
      simpl.
      assert (Hc' : mono_ctx (ctx ++ [mkfb l FCns T]) = true).
      { apply mono_ctx_app; [assumption|]. simpl. rewrite HT. reflexivity. }
      assert (Hw' : ctx_wf ts (ctx ++ [mkfb l FCns T]) = true).
      { apply ctx_wf_app; [assumption|]. simpl. rewrite HwT. reflexivity. }
      rewrite <- E_snoc in Hk.
      sub (IHt st _ T Hm Hc' HT Tb I Hw' HwT Hk) b' st1 H1 I1 S1 G1. done_ok.
    - (* FGoto *)
      destruct (cns_ty (E ctx) l) as [S0|] eqn:Ec; [|discriminate].
      destruct (E_cns _ _ _ Ec) as [Hl [b0 [Hb0 Hbt]]].
      simpl. rewrite Hl. simpl.
      assert (HmS : mono_ty S0 = true) by (subst S0; apply (mono_ctx_in ctx); assumption).
      assert (HwS : wf_ty ts S0 = true) by (subst S0; apply (ctx_wf_in ts ctx); assumption).
      sub (IHt st ctx S0 Hm Hc HmS Tb I Hw HwS Hk) b' st1 H1 I1 S1 G1. done_ok.
    - (* FExit *)
      simpl. sub (IHt st ctx FI64 Hm Hc eq_refl Tb I Hw eq_refl Hk) b' st1 H1 I1 S1 G1. done_ok.
    - (* FParen *)
      simpl. sub (IHt st ctx T Hm Hc HT Tb I Hw HwT Hk) b' st1 H1 I1 S1 G1. done_ok.
  Qed.
End Ran.
