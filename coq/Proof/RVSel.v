(* RISC-V back end on the ISA semantics Sem/RVSem.v (property C08), in four layers:
   - instruction selection: every method of the `Instructions` trait as modelled in Model/RV.v does what the
     abstract machine instruction means, for every choice of registers, aliasing included, and every register
     contents.  No spills; arithmetic, moves, loads of constants and the conditional jumps are one machine
     instruction each, `add_and_jump` two or three;
   - the code image (`mk_image`, `padd`, `size_of`), the jump table, and the small-step relation `one` / `star` over
     code `placed` in an image, tied to the executable machine by `run_chunk_one`;
   - the allocator operations share / erase / release / acquire as refinements of an abstract heap on words (`aheap`,
     `represents`): sequences with branches, executed through the two control structures of memory.rs.  This is the
     word-level abstraction; Proof/RVHeapAbs.v relates it to the heap of Model/Heap.v;
   - store and load of one block (at most FIELDS_PER_BLOCK values): `sv_spec`, `lv_spec`, `lvs_spec` say what is written.
   The definitions named above are mentioned by statements of Props/C08.v, C09.v, C11.v and stay in this file.
   lib/mkprops_C08.py copies the statements of the theorems of this file into Props/C08.v. *)
From Coq Require Import List ZArith NArith String Bool Lia FMapPositive.
From SCC Require Import Base.Sexp Lang.AxSyn Sem.AxSem Model.Backend Model.RV Sem.RVSem Generated.Constants.
Import ListNotations.
Local Open Scope list_scope.
Local Open Scope Z_scope.

Lemma succ_pos_inj : forall a b : N, N.succ_pos a = N.succ_pos b -> a = b.
Proof.
  intros a b H. destruct a, b; cbn in H; try reflexivity.
  - destruct p; discriminate.
  - destruct p; discriminate.
  - apply Pos.succ_inj in H. now subst.
Qed.

Lemma rget_zero : forall s, rget s 0%N = Some 0.
Proof. reflexivity. Qed.

Lemma rget_rset_same : forall s r v, r <> 0%N -> rget (rset s r v) r = v.
Proof.
  intros s r v Hr. unfold rget, rset. destruct (N.eqb_spec r 0); [contradiction|]. cbn.
  destruct v; [apply PM.gss | apply PM.grs].
Qed.

Lemma rget_rset_other : forall s r r' v, r <> r' -> rget (rset s r v) r' = rget s r'.
Proof.
  intros s r r' v Hne. unfold rget, rset. destruct (N.eqb_spec r 0); [reflexivity|].
  destruct (N.eqb_spec r' 0); [reflexivity|]. cbn.
  assert (N.succ_pos r' <> N.succ_pos r) by (intro E; apply succ_pos_inj in E; congruence).
  destruct v; [apply PM.gso | apply PM.gro]; assumption.
Qed.

(* the complete effect of a register write: only that register changes (x0 never), memory is untouched *)
Theorem rset_spec : forall s t v r,
  rget (rset s t v) r = (if (N.eqb r t && negb (N.eqb t 0))%bool then v else rget s r)
  /\ heap (rset s t v) = heap s /\ hw (rset s t v) = hw s.
Proof.
  intros s t v r. split.
  - destruct (N.eqb_spec r t) as [->|Hne]; cbn.
    + destruct (N.eqb_spec t 0) as [->|Hz]; cbn; [reflexivity| now apply rget_rset_same].
    + apply rget_rset_other. congruence.
  - unfold rset. destruct (N.eqb t 0); cbn; auto.
Qed.

Lemma heap_rset : forall s t v, heap (rset s t v) = heap s.
Proof. intros. apply rset_spec; exact 0%N. Qed.

Lemma PM_add_add : forall {X} k (v v' : X) m, PM.add k v (PM.add k v' m) = PM.add k v m.
Proof.
  induction k; intros v v' m; destruct m; cbn; try rewrite IHk; reflexivity.
Qed.
Lemma rset_rset : forall s t v v', rset (rset s t (Some v')) t (Some v) = rset s t (Some v).
Proof.
  intros s t v v'. unfold rset. destruct (N.eqb t 0); [reflexivity|]. cbn. now rewrite PM_add_add.
Qed.

(* states are compared up to the contents of the register file *)
Definition same_state (a b : rstate) : Prop :=
  (forall r, rget a r = rget b r) /\ heap a = heap b /\ hw a = hw b.

(* target and operands are arbitrary registers (any aliasing, x0 included): operands are read
   before the target is written *)
(* the instruction does not depend on the address it stands at *)
Lemma rv_arith_step : forall im o t s1 s2 s x y,
  rget s s1 = Some x -> rget s s2 = Some y ->
  exists c, r_arith o t s1 s2 = [c] /\
    forall pc, step im pc c s = match eval_op o x y with
                                | OpVal z => Next (rset s t (Some z))
                                | OpUndef w => Undefd w s
                                end.
Proof.
  intros im o t s1 s2 s x y H1 H2.
  destruct o; eexists; (split; [reflexivity|]); intros pc; cbn [step];
    unfold arith3, divrem, need, eval_op; rewrite H1, H2; try reflexivity;
    repeat match goal with |- context [if ?b then _ else _] => destruct b end; reflexivity.
Qed.

Theorem rv_arith_sel : forall im pc o t s1 s2 s x y,
  rget s s1 = Some x -> rget s s2 = Some y ->
  exists c, b_arith rv_backend o t s1 s2 = [c] /\
    step im pc c s = match eval_op o x y with
                     | OpVal z => Next (rset s t (Some z))
                     | OpUndef w => Undefd w s
                     end.
Proof.
  intros im pc o t s1 s2 s x y H1 H2. destruct (rv_arith_step im o t s1 s2 s x y H1 H2) as (c & E & ST). eauto.
Qed.

Lemma step_ADD : forall im pc t s1 s2 s x y,
  rget s s1 = Some x -> rget s s2 = Some y -> step im pc (ADD t s1 s2) s = Next (rset s t (Some (wrap (x + y)))).
Proof. intros im pc t s1 s2 s x y H1 H2. cbn [step]. unfold arith3, need. now rewrite H1, H2. Qed.

(* an undefined operand is a fault, never a silently wrong value *)
Theorem rv_arith_undef_operand : forall im pc o t s1 s2 s,
  rget s s1 = None \/ rget s s2 = None ->
  exists c, b_arith rv_backend o t s1 s2 = [c] /\ step im pc c s = Fault "undef-operand" s.
Proof.
  intros im pc o t s1 s2 s H.
  destruct o; cbn; eexists; (split; [reflexivity|]); cbn; unfold arith3, divrem, need;
    destruct H as [H|H]; rewrite H; try reflexivity; destruct (rget s s1); reflexivity.
Qed.

Theorem rv_mov_sel : forall im pc t s0 s,
  exists c, b_mov rv_backend t s0 = [c] /\ step im pc c s = Next (rset s t (rget s s0)).
Proof. intros. eexists; split; reflexivity. Qed.

Theorem rv_load_immediate_sel : forall im pc t i s,
  exists c, b_load_immediate rv_backend t i = [c] /\ step im pc c s = Next (rset s t (Some i)).
Proof. intros. eexists; split; reflexivity. Qed.

Theorem rv_load_label_sel : forall im pc t l a s,
  label_addr im l = Some a ->
  exists c, b_load_label rv_backend t l = [c] /\ step im pc c s = Next (rset s t (Some a)).
Proof. intros im pc t l a s H. eexists; split; [reflexivity|]. cbn. now rewrite H. Qed.

Theorem rv_jump_label_sel : forall im pc l i s,
  find_label (labels im) l = Some i ->
  exists c, b_jump_label rv_backend l = [c] /\ b_jump_label_fixed rv_backend l = [c] /\
            step im pc c s = Jump s i /\ isize c = 4.
Proof.
  intros im pc l i s H. eexists; repeat split; try reflexivity. cbn. unfold goto_label. now rewrite H.
Qed.

(* indirect jump: the register holds an (even) instruction address *)
Lemma step_JALR0 : forall im pc t a i s,
  rget s t = Some a -> a mod 2 = 0 -> PM.find (key a) (index_at im) = Some i ->
  step im pc (JALR ZERO t 0) s = Jump s i.
Proof.
  intros im pc t a i s Ht Heven Hi. cbn. unfold ea, need. cbn. rewrite Ht. unfold goto_addr.
  replace (a + 0 - (a + 0) mod 2) with a by (rewrite Z.add_0_r, Heven; lia). now rewrite Hi.
Qed.

Theorem rv_jump_sel : forall im pc t a i s,
  rget s t = Some a -> a mod 2 = 0 -> PM.find (key a) (index_at im) = Some i ->
  exists c, b_jump rv_backend t = [c] /\ step im pc c s = Jump s i.
Proof. intros. eexists; split; [reflexivity|]. now apply step_JALR0 with (a := a). Qed.

Lemma TEMP_nz : TEMP <> 0%N.
Proof. discriminate. Qed.

(* add_and_jump: TEMP <- t + i; jump to it.  Only TEMP is written. *)
Theorem rv_add_and_jump_sel : forall im pc t i a j s,
  rget s t = Some a -> fits12 i = true -> wrap (a + i) mod 2 = 0 ->
  PM.find (key (wrap (a + i))) (index_at im) = Some j ->
  exists c1 c2, b_add_and_jump rv_backend t i = [c1; c2] /\
    step im pc c1 s = Next (rset s TEMP (Some (wrap (a + i)))) /\
    step im (pc + isize c1) c2 (rset s TEMP (Some (wrap (a + i)))) = Jump (rset s TEMP (Some (wrap (a + i)))) j.
Proof.
  intros im pc t i a j s Ht Hfit Heven Hj. exists (ADDI TEMP t i), (JALR ZERO TEMP 0).
  split; [cbn [b_add_and_jump rv_backend]; unfold r_add_and_jump; change (addi_fits i) with (fits12 i); rewrite Hfit; reflexivity|]. split.
  - cbn [step]. rewrite Hfit. unfold need. now rewrite Ht.
  - apply step_JALR0 with (a := wrap (a + i)); [apply rget_rset_same, TEMP_nz | exact Heven | exact Hj].
Qed.

(* add_and_jump with an offset beyond the 12-bit immediate (repair of the finding "tag dispatch immediate", docs/C14.md):
   TEMP <- i; TEMP <- t + TEMP; jump to it.  Only TEMP is written. *)
Theorem rv_add_and_jump_big_sel : forall im pc pc2 pc3 t i a j s,
  rget s t = Some a -> t <> TEMP -> fits12 i = false -> wrap (a + i) mod 2 = 0 ->
  PM.find (key (wrap (a + i))) (index_at im) = Some j ->
  exists c1 c2 c3, b_add_and_jump rv_backend t i = [c1; c2; c3] /\
    step im pc c1 s = Next (rset s TEMP (Some i)) /\
    step im pc2 c2 (rset s TEMP (Some i)) = Next (rset s TEMP (Some (wrap (a + i)))) /\
    step im pc3 c3 (rset s TEMP (Some (wrap (a + i)))) = Jump (rset s TEMP (Some (wrap (a + i)))) j.
Proof.
  intros im pc pc2 pc3 t i a j s Ht NT Hfit Heven Hj. exists (LI TEMP i), (ADD TEMP t TEMP), (JALR ZERO TEMP 0).
  split; [cbn [b_add_and_jump rv_backend]; unfold r_add_and_jump; change (addi_fits i) with (fits12 i); rewrite Hfit; reflexivity|].
  split; [reflexivity|]. split.
  - rewrite (step_ADD im pc2 TEMP t TEMP _ a i).
    + now rewrite rset_rset.
    + now rewrite rget_rset_other by congruence.
    + apply rget_rset_same, TEMP_nz.
  - apply step_JALR0 with (a := wrap (a + i)); [apply rget_rset_same, TEMP_nz | exact Heven | exact Hj].
Qed.

Lemma step_jcc : forall im pc so a b l s x y,
  rget s a = Some x -> rget s b = Some y ->
  step im pc (jcc so a b l) s = if eval_cmp so x y then goto_label im s l else Next s.
Proof. intros im pc so a b l s x y Ha Hb. destruct so; cbn [jcc step]; unfold branch, need; rewrite Ha, Hb; reflexivity. Qed.

Theorem rv_jcc2_sel : forall im pc so a b l s x y,
  rget s a = Some x -> rget s b = Some y ->
  exists c, b_jcc2 rv_backend so a b l = [c] /\
    step im pc c s = if eval_cmp so x y then goto_label im s l else Next s.
Proof. intros. eexists; split; [reflexivity|]. now apply step_jcc. Qed.

(* the second operand is x0 *)
Theorem rv_jcc1_sel : forall im pc so a l s x,
  rget s a = Some x ->
  exists c, b_jcc1 rv_backend so a l = [c] /\
    step im pc c s = if eval_cmp so x 0 then goto_label im s l else Next s.
Proof. intros. eexists; split; [reflexivity|]. apply step_jcc; [assumption|apply rget_zero]. Qed.

(* constants regenerated from the crate (Generated/Constants.v) *)
Theorem rv_jump_length_samples :
  map (fun n => jump_length (N.of_nat n)) (seq 0 6) = RVC.jump_length_samples.
Proof. reflexivity. Qed.
Theorem rv_field_offset_samples :
  map (fun n => field_offset Fst (N.of_nat n)) (seq 0 4) = RVC.field_offset_fst /\
  map (fun n => field_offset Snd (N.of_nat n)) (seq 0 4) = RVC.field_offset_snd.
Proof. split; reflexivity. Qed.
Theorem rv_register_constants :
  (ZERO, TEMP, HEAP, FREE, RETURN1, RESERVED, REGISTER_NUM, FIELDS_PER_BLOCK) = (0, 1, 2, 3, 10, 4, 32, 3)%N
  /\ REFERENCE_COUNT_OFFSET = 0 /\ NEXT_ELEMENT_OFFSET = 0.
Proof. repeat split; reflexivity. Qed.

Fixpoint padd (i : positive) (n : nat) : positive :=
  match n with O => i | S m => padd (Pos.succ i) m end.
Fixpoint size_of (cs : list rcode) : Z :=
  match cs with [] => 0 | c :: r => isize c + size_of r end.

Lemma isize_cases : forall c, isize c = 0 \/ isize c = 4 \/ isize c = 8 \/ isize c = 32.
Proof. destruct c; cbn; auto. destruct (fits12 c); auto. destruct (fits32 c); auto. Qed.
Lemma isize_nonneg : forall c, 0 <= isize c.
Proof. intros c. destruct (isize_cases c) as [H|[H|[H|H]]]; lia. Qed.
Lemma size_of_nonneg : forall cs, 0 <= size_of cs.
Proof. induction cs; cbn; [lia|]. pose proof (isize_nonneg a). lia. Qed.
Lemma size_of_app : forall a b, size_of (a ++ b) = size_of a + size_of b.
Proof. induction a; cbn; intros; [lia|]. rewrite IHa. lia. Qed.
Lemma size_of_mod4 : forall cs, size_of cs mod 4 = 0.
Proof.
  induction cs; cbn; [reflexivity|].
  rewrite Z.add_mod, IHcs by lia. destruct (isize_cases a) as [H|[H|[H|H]]]; rewrite H; reflexivity.
Qed.

Lemma key_neq : forall a b, 0 < a -> b < a -> key b <> key a.
Proof.
  intros a b Ha Hb E. unfold key in E.
  assert (Z.pos (Z.to_pos (a + 1)) = a + 1) as Ea by (apply Z2Pos.id; lia).
  destruct (Z_lt_le_dec 0 (b + 1)).
  - assert (Z.pos (Z.to_pos (b + 1)) = b + 1) as Eb by (apply Z2Pos.id; lia). rewrite E in Eb. lia.
  - rewrite Z2Pos.to_pos_nonpos in E by lia. rewrite <- E in Ea. lia.
Qed.

Lemma padd_succ : forall n i, padd (Pos.succ i) n = Pos.succ (padd i n).
Proof. induction n; cbn; intros; [reflexivity|]. now rewrite IHn. Qed.
Lemma padd_lt : forall n i, (i <= padd i n)%positive.
Proof. induction n; cbn; intros; [lia|]. specialize (IHn (Pos.succ i)). lia. Qed.

Lemma build_code_lt : forall cs i a im j,
  (j < i)%positive -> PM.find j (code (build cs i a im)) = PM.find j (code im).
Proof.
  induction cs as [|c r IH]; cbn [build]; intros i a im j Hj; [reflexivity|].
  rewrite IH by lia. cbn. apply PM.gso. lia.
Qed.
Lemma build_addr_lt : forall cs i a im j,
  (j < i)%positive -> PM.find j (addr_of (build cs i a im)) = PM.find j (addr_of im).
Proof.
  induction cs as [|c r IH]; cbn [build]; intros i a im j Hj; [reflexivity|].
  rewrite IH by lia. cbn. apply PM.gso. lia.
Qed.
Lemma build_index_lt : forall cs i a im b,
  0 < a -> b < a -> PM.find (key b) (index_at (build cs i a im)) = PM.find (key b) (index_at im).
Proof.
  induction cs as [|c r IH]; cbn [build]; intros i a im b Ha Hb; [reflexivity|].
  pose proof (isize_nonneg c). rewrite IH by lia. cbn.
  destruct (isize c =? 0); [reflexivity|]. apply PM.gso. now apply key_neq.
Qed.

Lemma build_code_at : forall cs i a im n c,
  nth_error cs n = Some c -> PM.find (padd i n) (code (build cs i a im)) = Some c.
Proof.
  induction cs as [|c0 r IH]; intros i a im n c Hn; [destruct n; discriminate|].
  destruct n; cbn [nth_error padd build] in *.
  - injection Hn as ->. rewrite build_code_lt by lia. cbn. apply PM.gss.
  - now apply IH.
Qed.
Lemma build_addr_at : forall cs i a im n c,
  nth_error cs n = Some c -> PM.find (padd i n) (addr_of (build cs i a im)) = Some (a + size_of (firstn n cs)).
Proof.
  induction cs as [|c0 r IH]; intros i a im n c Hn; [destruct n; discriminate|].
  destruct n; cbn [nth_error padd build firstn size_of] in *.
  - rewrite build_addr_lt by lia. cbn. rewrite PM.gss. f_equal. lia.
  - erewrite IH by eassumption. f_equal. lia.
Qed.
Lemma build_index_at : forall cs i a im n c,
  0 < a -> nth_error cs n = Some c -> isize c <> 0 ->
  PM.find (key (a + size_of (firstn n cs))) (index_at (build cs i a im)) = Some (padd i n).
Proof.
  induction cs as [|c0 r IH]; intros i a im n c Ha Hn Hsz; [destruct n; discriminate|].
  destruct n; cbn [nth_error padd build firstn size_of] in *.
  - injection Hn as ->. pose proof (isize_nonneg c). rewrite Z.add_0_r.
    rewrite build_index_lt by lia. cbn. destruct (Z.eqb_spec (isize c) 0); [contradiction|]. apply PM.gss.
  - pose proof (isize_nonneg c0). rewrite Z.add_assoc. eapply IH; eauto. lia.
Qed.

Fixpoint lab_acc (cs : list rcode) (i : positive) (acc : list (string * positive)) : list (string * positive) :=
  match cs with
  | [] => acc
  | c :: r => lab_acc r (Pos.succ i) (match c with LAB l => (l, i) :: acc | _ => acc end)
  end.
Lemma build_labels : forall cs i a im, labels (build cs i a im) = lab_acc cs i (labels im).
Proof. induction cs as [|c r IH]; cbn [build lab_acc]; intros; [reflexivity|]. now rewrite IH. Qed.
Lemma find_label_absent : forall cs i acc l,
  ~ In (LAB l) cs -> find_label (lab_acc cs i acc) l = find_label acc l.
Proof.
  induction cs as [|c r IH]; cbn [lab_acc]; intros i acc l Hn; [reflexivity|].
  rewrite IH by (intro; apply Hn; now right).
  destruct c; try reflexivity. cbn. destruct (String.eqb_spec l l0); [|reflexivity].
  subst. exfalso. apply Hn. now left.
Qed.
Lemma find_label_at : forall pre i acc l post,
  ~ In (LAB l) post -> find_label (lab_acc (pre ++ LAB l :: post) i acc) l = Some (padd i (List.length pre)).
Proof.
  induction pre as [|c r IH]; intros i acc l post Hn.
  - cbn [app lab_acc List.length padd]. rewrite find_label_absent by assumption. cbn. now rewrite String.eqb_refl.
  - cbn [app lab_acc List.length padd]. now apply IH.
Qed.

Lemma nth_error_app_at : forall {X} (pre : list X) x post, nth_error (pre ++ x :: post) (List.length pre) = Some x.
Proof. induction pre; cbn; auto. Qed.
Lemma firstn_app_at : forall {X} (pre post : list X) n, firstn (List.length pre + n) (pre ++ post) = pre ++ firstn n post.
Proof. induction pre; cbn; intros; [reflexivity|]. now rewrite IHpre. Qed.

Lemma wrap_small : forall z, min_int <= z <= max_int -> wrap z = z.
Proof.
  intros z H. unfold wrap, min_int, max_int, two63, two64 in *. rewrite Z.mod_small by lia. lia.
Qed.

Lemma size_of_jals : forall (ls : list string) n,
  size_of (firstn n (map (fun x => JAL ZERO x) ls)) = 4 * Z.of_nat (Nat.min n (List.length ls)).
Proof.
  induction ls as [|x r IH]; intros n; destruct n; cbn [firstn map size_of List.length Nat.min]; try lia.
  rewrite IH. cbn [isize]. lia.
Qed.

Lemma firstn_length_app : forall {X} (pre post : list X), firstn (List.length pre) (pre ++ post) = pre.
Proof. induction pre; cbn; intros; [reflexivity|]. now rewrite IHpre. Qed.

Lemma label_index_at : forall pre l post,
  ~ In (LAB l) post ->
  find_label (labels (mk_image (pre ++ LAB l :: post))) l = Some (padd 1 (List.length pre)).
Proof. intros. unfold mk_image. rewrite build_labels. now apply find_label_at. Qed.

Lemma label_addr_at : forall pre l post,
  ~ In (LAB l) post ->
  label_addr (mk_image (pre ++ LAB l :: post)) l = Some (CODE_BASE + size_of pre).
Proof.
  intros pre l post H. unfold label_addr. rewrite label_index_at by assumption.
  unfold mk_image. erewrite build_addr_at by apply nth_error_app_at.
  now rewrite firstn_length_app.
Qed.

(* instruction sizes are multiples of 4, as is CODE_BASE *)
Lemma code_addr_even : forall cs, (CODE_BASE + size_of cs) mod 2 = 0.
Proof.
  intros cs. pose proof (size_of_mod4 cs) as H4. pose proof (Z.div_mod (size_of cs) 4 ltac:(lia)) as Hd.
  replace (CODE_BASE + size_of cs) with ((536870912 + size_of cs / 4 * 2) * 2) by (unfold CODE_BASE; lia).
  apply Z.mod_mul. lia.
Qed.

(* a jump table as code_table emits it (a label followed by one JAL per clause), anywhere in a program:
   the label's address and the image entries of the k-th JAL *)
Lemma jump_table_entry : forall pre l ls post k lk,
  ~ In (LAB l) post -> nth_error ls k = Some lk ->
  let im := mk_image (pre ++ LAB l :: (map (fun x => JAL ZERO x) ls ++ post)) in
  let a := CODE_BASE + size_of pre + jump_length (N.of_nat k) in
  exists entry,
    label_addr im l = Some (CODE_BASE + size_of pre) /\
    PM.find (key a) (index_at im) = Some entry /\
    PM.find entry (code im) = Some (JAL ZERO lk) /\
    PM.find entry (addr_of im) = Some a.
Proof.
  intros pre l ls post k lk Hl Hk im a.
  set (cs := pre ++ LAB l :: (map (fun x => JAL ZERO x) ls ++ post)) in *.
  assert (Hk' : (k < List.length ls)%nat) by (apply nth_error_Some; congruence).
  set (n := (List.length pre + S k)%nat).
  assert (Hn : nth_error cs n = Some (JAL ZERO lk)).
  { unfold cs, n. rewrite nth_error_app2 by lia. replace (List.length pre + S k - List.length pre)%nat with (S k) by lia.
    cbn [nth_error]. rewrite nth_error_app1 by (now rewrite map_length).
    now rewrite nth_error_map, Hk. }
  assert (Hsz : CODE_BASE + size_of (firstn n cs) = a).
  { unfold cs, n, a. rewrite firstn_app_at. cbn [firstn]. rewrite size_of_app. cbn [size_of isize].
    rewrite firstn_app. rewrite size_of_app, size_of_jals.
    replace (k - List.length (map (fun x => JAL ZERO x) ls))%nat with 0%nat by (rewrite map_length; lia).
    cbn [firstn size_of]. unfold jump_length. rewrite Nat.min_l by lia. lia. }
  exists (padd 1 n). unfold im, mk_image. fold cs. rewrite <- Hsz. repeat split.
  - apply label_addr_at. intro H. apply in_app_or in H as [H|H]; [|contradiction].
    apply in_map_iff in H as (x & Hx & _). discriminate.
  - eapply build_index_at; eauto; [reflexivity|discriminate].
  - now apply build_code_at.
  - eapply build_addr_at; eassumption.
Qed.

Lemma jump_table_even : forall cs k, (CODE_BASE + size_of cs + jump_length k) mod 2 = 0.
Proof.
  intros cs k. unfold jump_length. rewrite Z.add_mod, code_addr_even by lia.
  replace (4 * Z.of_N k) with (2 * Z.of_N k * 2) by lia. now rewrite Z.mod_mul.
Qed.

(* the address of the k-th entry of a jump table = address of the table label + jump_length k,
   for every program in which the table occurs anywhere; the entry's address is even and is an
   instruction start, so the indirect jump of `switch`/`invoke` dispatch lands exactly on
   `JAL x0, <k-th clause label>` *)
Theorem rv_jump_table_stride : forall pre l ls post k lk,
  let cs := pre ++ LAB l :: (map (fun x => JAL ZERO x) ls ++ post) in
  let im := mk_image cs in
  ~ In (LAB l) post ->
  nth_error ls k = Some lk ->
  exists table entry,
    label_addr im l = Some table /\
    PM.find (key (table + jump_length (N.of_nat k))) (index_at im) = Some entry /\
    PM.find entry (code im) = Some (JAL ZERO lk) /\
    PM.find entry (addr_of im) = Some (table + jump_length (N.of_nat k)) /\
    (table + jump_length (N.of_nat k)) mod 2 = 0 /\
    isize (JAL ZERO lk) = 4.
Proof.
  intros pre l ls post k lk cs im Hl Hk.
  destruct (jump_table_entry pre l ls post k lk Hl Hk) as (entry & Hla & Hidx & Hcode & Haddr).
  exists (CODE_BASE + size_of pre), entry. repeat split; try assumption. apply jump_table_even.
Qed.

(* the dispatch sequence of `switch` / `invoke` through a jump table:
   LA TEMP table; ADD TEMP TEMP v; JALR x0 TEMP 0   with v = jump_length k   reaches entry k *)
Theorem rv_switch_dispatch : forall pre l ls post k lk v s pc,
  let cs := pre ++ LAB l :: (map (fun x => JAL ZERO x) ls ++ post) in
  let im := mk_image cs in
  ~ In (LAB l) post -> nth_error ls k = Some lk ->
  v <> TEMP -> rget s v = Some (jump_length (N.of_nat k)) ->
  CODE_BASE + size_of cs <= max_int ->
  exists table entry s1 s2,
    b_load_label rv_backend TEMP l ++ b_arith rv_backend Sum TEMP TEMP v ++ b_jump rv_backend TEMP
      = [LA TEMP l; ADD TEMP TEMP v; JALR ZERO TEMP 0] /\
    step im pc (LA TEMP l) s = Next s1 /\
    step im (pc + 8) (ADD TEMP TEMP v) s1 = Next s2 /\
    step im (pc + 12) (JALR ZERO TEMP 0) s2 = Jump s2 entry /\
    PM.find entry (code im) = Some (JAL ZERO lk) /\
    s2 = rset s TEMP (Some (table + jump_length (N.of_nat k))).
Proof.
  intros pre l ls post k lk v s pc cs im Hl Hk Hv Hrv Hmax.
  destruct (jump_table_entry pre l ls post k lk Hl Hk) as (entry & Hla & Hidx & Hcode & _).
  fold cs in Hla, Hidx, Hcode. fold im in Hla, Hidx, Hcode. set (table := CODE_BASE + size_of pre) in *.
  assert (Hk' : (k < List.length ls)%nat) by (apply nth_error_Some; congruence).
  assert (Hrange : min_int <= table + jump_length (N.of_nat k) <= max_int).
  { pose proof (size_of_nonneg pre). pose proof (size_of_nonneg post). unfold jump_length.
    assert (size_of cs = size_of pre + (4 * Z.of_nat (List.length ls) + size_of post)).
    { unfold cs. rewrite size_of_app. cbn [size_of isize]. rewrite size_of_app.
      pose proof (size_of_jals ls (List.length ls)) as Hj. rewrite firstn_all2 in Hj by (rewrite map_length; lia).
      rewrite Hj, Nat.min_id. lia. }
    unfold table, min_int, two63, CODE_BASE in *. lia. }
  exists table, entry, (rset s TEMP (Some table)), (rset s TEMP (Some (table + jump_length (N.of_nat k)))).
  split; [reflexivity|]. split; [|split; [|split; [|split]]].
  - cbn [step]. now rewrite Hla.
  - rewrite (step_ADD im _ TEMP TEMP v _ table (jump_length (N.of_nat k))).
    + now rewrite rset_rset, wrap_small.
    + apply rget_rset_same, TEMP_nz.
    + now rewrite rget_rset_other by congruence.
  - apply step_JALR0 with (a := table + jump_length (N.of_nat k)); [apply rget_rset_same, TEMP_nz | apply jump_table_even | exact Hidx].
  - exact Hcode.
  - reflexivity.
Qed.

(* Memory operations.  The emitted code contains labels and branches, so it is executed
   with a small-step relation over the image; `run_chunk_one` ties that relation to the
   executable machine of Sem/RVSem.v. *)
Inductive one (im : image) : positive -> rstate -> positive -> rstate -> Prop :=
| one_next : forall pc c a s s',
    PM.find pc (code im) = Some c -> PM.find pc (addr_of im) = Some a ->
    step im a c s = Next s' -> one im pc s (Pos.succ pc) s'
| one_jump : forall pc c a s s' j,
    PM.find pc (code im) = Some c -> PM.find pc (addr_of im) = Some a ->
    step im a c s = Jump s' j -> one im pc s j s'.
Inductive star (im : image) : positive -> rstate -> positive -> rstate -> Prop :=
| star_refl : forall pc s, star im pc s pc s
| star_step : forall pc s pc1 s1 pc2 s2, one im pc s pc1 s1 -> star im pc1 s1 pc2 s2 -> star im pc s pc2 s2.

Lemma star_trans : forall im pc s pc1 s1 pc2 s2,
  star im pc s pc1 s1 -> star im pc1 s1 pc2 s2 -> star im pc s pc2 s2.
Proof. induction 1; intros; [assumption|]. econstructor; eauto. Qed.

(* one step of the relation is one step of the executable machine *)
Lemma run_chunk_one : forall im stop pc s pc' s' f,
  one im pc s pc' s' -> pc <> stop ->
  run_chunk (S f) im stop pc s = run_chunk f im stop pc' s'.
Proof.
  intros im stop pc s pc' s' f H Hne. cbn [run_chunk].
  destruct (Pos.eqb_spec pc stop); [contradiction|].
  inversion H; subst; rewrite H0, H1, H2; reflexivity.
Qed.

Definition at_code (im : image) (i : positive) (cs : list rcode) : Prop :=
  forall n c, nth_error cs n = Some c ->
    PM.find (padd i n) (code im) = Some c /\ exists a, PM.find (padd i n) (addr_of im) = Some a.

Lemma padd_add : forall n m i, padd i (n + m) = padd (padd i n) m.
Proof. induction n; cbn; intros; [reflexivity|]. apply IHn. Qed.
Lemma at_code_app : forall im i c1 c2,
  at_code im i (c1 ++ c2) -> at_code im i c1 /\ at_code im (padd i (List.length c1)) c2.
Proof.
  intros im i c1 c2 H. split; intros n c Hn.
  - apply H. rewrite nth_error_app1; [assumption|]. apply nth_error_Some. congruence.
  - rewrite <- padd_add. apply H. rewrite nth_error_app2 by lia.
    now replace (List.length c1 + n - List.length c1)%nat with n by lia.
Qed.
(* code found in an image built by mk_image *)
Lemma at_code_mk_image : forall pre cs post,
  at_code (mk_image (pre ++ cs ++ post)) (padd 1 (List.length pre)) cs.
Proof.
  intros pre cs post n c Hn. rewrite <- padd_add.
  assert (nth_error (pre ++ cs ++ post) (List.length pre + n) = Some c) as H.
  { rewrite nth_error_app2 by lia. replace (List.length pre + n - List.length pre)%nat with n by lia.
    rewrite nth_error_app1; [assumption|]. apply nth_error_Some. congruence. }
  unfold mk_image. split; [now apply build_code_at|]. eexists. eapply build_addr_at; eauto.
Qed.

(* the labels inside a code fragment resolve to their own positions *)
Definition labels_ok (im : image) (i : positive) (cs : list rcode) : Prop :=
  forall n l, nth_error cs n = Some (LAB l) -> find_label (labels im) l = Some (padd i n).
Definition placed (im : image) (i : positive) (cs : list rcode) : Prop := at_code im i cs /\ labels_ok im i cs.

Lemma labels_ok_app : forall im i c1 c2,
  labels_ok im i (c1 ++ c2) -> labels_ok im i c1 /\ labels_ok im (padd i (List.length c1)) c2.
Proof.
  intros im i c1 c2 H. split; intros n c Hn.
  - apply H. rewrite nth_error_app1; [assumption|]. apply nth_error_Some. congruence.
  - rewrite <- padd_add. apply H. rewrite nth_error_app2 by lia.
    now replace (List.length c1 + n - List.length c1)%nat with n by lia.
Qed.
Lemma placed_app : forall im i c1 c2,
  placed im i (c1 ++ c2) -> placed im i c1 /\ placed im (padd i (List.length c1)) c2.
Proof.
  intros im i c1 c2 [H1 H2]. apply at_code_app in H1 as [? ?]. apply labels_ok_app in H2 as [? ?].
  split; split; assumption.
Qed.

(* satisfiable: any fragment of a program whose labels are pairwise distinct is `placed` *)
Definition labels_of (cs : list rcode) : list string :=
  flat_map (fun c => match c with LAB l => [l] | _ => [] end) cs.
Lemma labels_of_app : forall a b, labels_of (a ++ b) = labels_of a ++ labels_of b.
Proof. intros. unfold labels_of. apply flat_map_app. Qed.
Lemma in_labels_of : forall l cs, In (LAB l) cs -> In l (labels_of cs).
Proof. intros l cs H. unfold labels_of. apply in_flat_map. exists (LAB l). split; [assumption|now left]. Qed.
Lemma nth_error_split_at : forall {X} (l : list X) n x,
  nth_error l n = Some x -> l = firstn n l ++ x :: skipn (S n) l /\ List.length (firstn n l) = n.
Proof.
  induction l; intros n x H; destruct n; try discriminate; cbn in *.
  - injection H as ->. auto.
  - destruct (IHl _ _ H) as [E L]. split; [now rewrite <- E | now rewrite L].
Qed.
Lemma NoDup_app_not_in : forall {X} (a b : list X) x, NoDup (a ++ x :: b) -> ~ In x b.
Proof.
  intros X a b x H. apply NoDup_remove_2 in H. intro Hb. apply H. apply in_or_app. now right.
Qed.
Theorem placed_mk_image : forall pre cs post,
  NoDup (labels_of (pre ++ cs ++ post)) ->
  placed (mk_image (pre ++ cs ++ post)) (padd 1 (List.length pre)) cs.
Proof.
  intros pre cs post Hnd. split; [apply at_code_mk_image|].
  intros n l Hn. destruct (nth_error_split_at _ _ _ Hn) as [E L].
  set (f := firstn n cs) in *. set (sk := skipn (S n) cs) in *.
  assert (Hw : pre ++ cs ++ post = (pre ++ f) ++ LAB l :: (sk ++ post)).
  { rewrite E. rewrite <- !app_assoc. reflexivity. }
  rewrite Hw in *. rewrite <- padd_add.
  replace (List.length pre + n)%nat with (List.length (pre ++ f)) by (rewrite app_length; lia).
  apply label_index_at.
  rewrite labels_of_app in Hnd. cbn [labels_of flat_map app] in Hnd.
  intro Hin. apply in_labels_of in Hin. revert Hin. eapply NoDup_app_not_in. exact Hnd.
Qed.

Definition hword (s : rstate) (a : Z) : Z :=
  match PM.find (key a) (heap s) with Some z => z | None => 0 end.
Definition valid_addr (a : Z) : Prop := aligned a = true /\ in_heap a = true.
Definition sstore (s : rstate) (a z : Z) : rstate :=
  {| regs := regs s; heap := PM.add (key a) z (heap s); hw := Z.max (hw s) a |}.

Lemma valid_pos : forall a, valid_addr a -> 0 < a.
Proof. intros a [_ H]. unfold in_heap, HEAP_BASE in H. apply andb_prop in H as [H _]. apply Z.leb_le in H. lia. Qed.
Lemma key_inj : forall a b, 0 < a -> key a = key b -> a = b.
Proof.
  intros a b Ha E. destruct (Z.lt_trichotomy a b) as [H|[H|H]]; [|assumption|].
  - exfalso. apply (key_neq b a); [lia|assumption|congruence].
  - exfalso. apply (key_neq a b); [lia|assumption|congruence].
Qed.
Lemma hword_sstore : forall s a z b, 0 < a -> hword (sstore s a z) b = if b =? a then z else hword s b.
Proof.
  intros s a z b Ha. unfold hword, sstore. cbn. destruct (Z.eqb_spec b a) as [->|Hne].
  - now rewrite PM.gss.
  - rewrite PM.gso; [reflexivity|]. intro E. symmetry in E. apply key_inj in E; [congruence|assumption].
Qed.
Lemma rget_sstore : forall s a z r, rget (sstore s a z) r = rget s r.
Proof. reflexivity. Qed.
Lemma hword_rset : forall s t v a, hword (rset s t v) a = hword s a.
Proof. intros. unfold hword. now rewrite heap_rset. Qed.
Lemma mload_valid : forall s a, valid_addr a -> mload s a = MOk (hword s a).
Proof. intros s a [Ha Hh]. unfold mload. now rewrite Ha, Hh. Qed.
Lemma mstore_valid : forall s a z, valid_addr a -> mstore s a (Some z) = MOk (sstore s a z).
Proof. intros s a z [Ha Hh]. unfold mstore. now rewrite Ha, Hh. Qed.

Lemma step_LW : forall im pc x y i s b,
  rget s y = Some b -> fits12 i = true -> valid_addr (b + i) ->
  step im pc (LW x y i) s = Next (rset s x (Some (hword s (b + i)))).
Proof. intros. cbn [step]. unfold ea, need, withm. now rewrite H0, H, mload_valid. Qed.
Lemma step_SW : forall im pc x y i s b v,
  rget s y = Some b -> rget s x = Some v -> fits12 i = true -> valid_addr (b + i) ->
  step im pc (SW x y i) s = Next (sstore s (b + i) v).
Proof. intros. cbn [step]. unfold ea, need, withm. now rewrite H1, H, H0, mstore_valid. Qed.
(* at offset 0, where the header of a block lies *)
Lemma step_LW0 : forall im pc x y s b,
  rget s y = Some b -> valid_addr b -> step im pc (LW x y 0) s = Next (rset s x (Some (hword s b))).
Proof. intros im pc x y s b H V. rewrite <- (Z.add_0_r b) in V. rewrite (step_LW im pc x y 0 s b H eq_refl V). now rewrite Z.add_0_r. Qed.
Lemma step_SW0 : forall im pc x y s b v,
  rget s y = Some b -> rget s x = Some v -> valid_addr b -> step im pc (SW x y 0) s = Next (sstore s b v).
Proof. intros im pc x y s b v H Hx V. rewrite <- (Z.add_0_r b) in V. rewrite (step_SW im pc x y 0 s b v H Hx eq_refl V). now rewrite Z.add_0_r. Qed.
Lemma step_ADDI : forall im pc x y i s a,
  rget s y = Some a -> fits12 i = true -> step im pc (ADDI x y i) s = Next (rset s x (Some (wrap (a + i)))).
Proof. intros. cbn [step]. unfold need. now rewrite H0, H. Qed.
Lemma step_MV : forall im pc x y s, step im pc (MV x y) s = Next (rset s x (rget s y)).
Proof. reflexivity. Qed.
Lemma step_LAB : forall im pc l s, step im pc (LAB l) s = Next s.
Proof. reflexivity. Qed.
Lemma step_JAL0 : forall im pc l s j,
  find_label (labels im) l = Some j -> step im pc (JAL ZERO l) s = Jump s j.
Proof. intros. cbn [step]. unfold goto_label. now rewrite H. Qed.
Lemma step_BEQ0_taken : forall im pc x l s j,
  rget s x = Some 0 -> find_label (labels im) l = Some j -> step im pc (BEQ x ZERO l) s = Jump s j.
Proof. intros. cbn [step]. unfold branch, need, goto_label. rewrite H. cbn. now rewrite H0. Qed.
Lemma step_BEQ0_not : forall im pc x l s v,
  rget s x = Some v -> v <> 0 -> step im pc (BEQ x ZERO l) s = Next s.
Proof.
  intros. cbn [step]. unfold branch, need. rewrite H. cbn. destruct (Z.eqb_spec v 0); [contradiction|reflexivity].
Qed.

(* stepping tactics: `H` is an at_code hypothesis, `n` the offset of the instruction *)
Ltac exec_next H n lem :=
  let Hc := fresh "Hc" in let a := fresh "a" in let Ha := fresh "Ha" in
  destruct (H n _ eq_refl) as [Hc [a Ha]]; cbn [padd] in Hc, Ha;
  eapply star_step; [eapply one_next; [exact Hc | exact Ha | eapply lem] | ]; clear Hc Ha.
Ltac exec_jump H n lem :=
  let Hc := fresh "Hc" in let a := fresh "a" in let Ha := fresh "Ha" in
  destruct (H n _ eq_refl) as [Hc [a Ha]]; cbn [padd] in Hc, Ha;
  eapply star_step; [eapply one_jump; [exact Hc | exact Ha | eapply lem] | ]; clear Hc Ha.

Ltac regs :=
  repeat first [ rewrite rget_sstore
               | rewrite rget_rset_same by (first [assumption | vm_compute; discriminate])
               | rewrite rget_rset_other by (first [assumption | congruence | vm_compute; discriminate]) ].

(* The two control structures of memory.rs.  Executing `skip_if_zero` / `if_zero_then_else` placed in an image is executing the branch the condition
   register selects, placed where `skip_placed` / `ite_placed` say. *)
Lemma skip_placed : forall im i r body lc, placed im i (fst (skip_if_zero r body lc)) -> placed im (padd i 1) body.
Proof.
  intros im i r body lc H. unfold skip_if_zero in H. cbn [fst] in H.
  apply placed_app in H as [_ H]. now apply placed_app in H as [H _].
Qed.
Lemma skip_zero : forall im i r body lc s,
  placed im i (fst (skip_if_zero r body lc)) -> rget s r = Some 0 ->
  star im i s (padd i (List.length (fst (skip_if_zero r body lc)))) s.
Proof.
  intros im i r body lc s H Hr. unfold skip_if_zero in *. cbn [fst] in *. rewrite !app_length, !padd_add.
  apply placed_app in H as [[C0 _] H]. apply placed_app in H as [_ [CE LE]]. cbn [List.length] in *.
  exec_jump C0 0%nat step_BEQ0_taken; [exact Hr | apply (LE 0%nat _ eq_refl) |].
  exec_next CE 0%nat step_LAB. apply star_refl.
Qed.
Lemma skip_nonzero : forall im i r body lc s s' v,
  placed im i (fst (skip_if_zero r body lc)) -> rget s r = Some v -> v <> 0 ->
  star im (padd i 1) s (padd (padd i 1) (List.length body)) s' ->
  star im i s (padd i (List.length (fst (skip_if_zero r body lc)))) s'.
Proof.
  intros im i r body lc s s' v H Hr Hv Hbody. unfold skip_if_zero in *. cbn [fst] in *. rewrite !app_length, !padd_add.
  apply placed_app in H as [[C0 _] H]. apply placed_app in H as [_ [CE _]]. cbn [List.length] in *.
  exec_next C0 0%nat step_BEQ0_not; [exact Hr | exact Hv |].
  eapply star_trans; [exact Hbody|]. exec_next CE 0%nat step_LAB. apply star_refl.
Qed.

Lemma ite_placed : forall im i r th el lc, placed im i (fst (if_zero_then_else r th el lc)) ->
  placed im (padd i 1) el /\ placed im (padd (padd (padd i 1) (List.length el)) 2) th.
Proof.
  intros im i r th el lc H. unfold if_zero_then_else in H. cbn [fst] in H.
  apply placed_app in H as [_ H]. apply placed_app in H as [Hel H]. apply placed_app in H as [_ H].
  now apply placed_app in H as [H _].
Qed.
Lemma ite_zero : forall im i r th el lc s s',
  placed im i (fst (if_zero_then_else r th el lc)) -> rget s r = Some 0 ->
  star im (padd (padd (padd i 1) (List.length el)) 2) s
          (padd (padd (padd (padd i 1) (List.length el)) 2) (List.length th)) s' ->
  star im i s (padd i (List.length (fst (if_zero_then_else r th el lc)))) s'.
Proof.
  intros im i r th el lc s s' H Hr Hth. unfold if_zero_then_else in *. cbn [fst] in *. rewrite !app_length, !padd_add.
  apply placed_app in H as [[C0 _] H]. apply placed_app in H as [_ H]. apply placed_app in H as [[CJ LJ] H].
  apply placed_app in H as [_ [CE _]]. cbn [List.length] in *.
  exec_jump C0 0%nat step_BEQ0_taken; [exact Hr | apply (LJ 1%nat _ eq_refl) |].
  exec_next CJ 1%nat step_LAB. eapply star_trans; [exact Hth|]. exec_next CE 0%nat step_LAB. apply star_refl.
Qed.
Lemma ite_nonzero : forall im i r th el lc s s' v,
  placed im i (fst (if_zero_then_else r th el lc)) -> rget s r = Some v -> v <> 0 ->
  star im (padd i 1) s (padd (padd i 1) (List.length el)) s' ->
  star im i s (padd i (List.length (fst (if_zero_then_else r th el lc)))) s'.
Proof.
  intros im i r th el lc s s' v H Hr Hv Hel. unfold if_zero_then_else in *. cbn [fst] in *. rewrite !app_length, !padd_add.
  apply placed_app in H as [[C0 _] H]. apply placed_app in H as [_ H]. apply placed_app in H as [[CJ _] H].
  apply placed_app in H as [_ [CE LE]]. cbn [List.length] in *.
  exec_next C0 0%nat step_BEQ0_not; [exact Hr | exact Hv |].
  eapply star_trans; [exact Hel|]. exec_jump CJ 0%nat step_JAL0; [apply (LE 0%nat _ eq_refl) |].
  exec_next CE 0%nat step_LAB. apply star_refl.
Qed.

(* The abstract heap operations (docs/DESIGN-round0.md Appendix D, on words).  A block's header is the word at the block's address (REFERENCE_COUNT_OFFSET =
   NEXT_ELEMENT_OFFSET = 0): the reference count minus one for a live block, the link for a block
   on a free list.  `hp`/`fp` are the linear and the lazy free list (registers HEAP and FREE). *)
Record aheap := { words : Z -> Z; hp : Z; fp : Z }.
Definition upd (w : Z -> Z) (a v : Z) : Z -> Z := fun x => if x =? a then v else w x.

Definition a_share (p n : Z) (h : aheap) : aheap :=
  if p =? 0 then h else {| words := upd (words h) p (wrap (words h p + n)); hp := hp h; fp := fp h |}.
Definition a_erase (p : Z) (h : aheap) : aheap :=
  if p =? 0 then h
  else if words h p =? 0
       then {| words := upd (words h) p (fp h); hp := hp h; fp := p |}
       else {| words := upd (words h) p (wrap (words h p - 1)); hp := hp h; fp := fp h |}.
Definition a_release (b : Z) (h : aheap) : aheap :=
  {| words := upd (words h) b (hp h); hp := b; fp := fp h |}.

(* the concrete state represents the abstract heap *)
Definition represents (s : rstate) (h : aheap) : Prop :=
  (forall a, hword s a = words h a) /\ rget s HEAP = Some (hp h) /\ rget s FREE = Some (fp h).

(* how the representation follows the two kinds of state change *)
Lemma represents_rset : forall s h t v, represents s h -> t <> HEAP -> t <> FREE -> represents (rset s t v) h.
Proof.
  intros s h t v (Hw & Hhp & Hfp) H1 H2. split; [|split]; [intros; rewrite hword_rset; apply Hw | |]; now rewrite rget_rset_other.
Qed.
Lemma represents_sstore : forall s h a z, represents s h -> 0 < a ->
  represents (sstore s a z) {| words := upd (words h) a z; hp := hp h; fp := fp h |}.
Proof.
  intros s h a z (Hw & Hhp & Hfp) Ha. split; [|split]; cbn [words hp fp]; [|assumption..].
  intros x. rewrite hword_sstore by exact Ha. unfold upd. destruct (x =? a); [reflexivity|apply Hw].
Qed.

(* the emitted code, placed anywhere in a program, started at its first instruction with the
   register t holding p (null or a block address), reaches its end with the heap changed as the
   abstract `share` says; only TEMP is clobbered *)
Theorem rv_share_block_n_refines : forall im i t n lc s h p,
  placed im i (fst (r_share_block_n t n lc)) ->
  t <> ZERO -> t <> TEMP -> t <> HEAP -> t <> FREE ->
  represents s h -> rget s t = Some p -> (p = 0 \/ valid_addr p) -> fits12 (Z.of_N n) = true ->
  exists s',
    star im i s (padd i (List.length (fst (r_share_block_n t n lc)))) s' /\
    represents s' (a_share p (Z.of_N n) h) /\
    (forall r, r <> TEMP -> rget s' r = rget s r).
Proof.
  intros im i t n lc s h p Hpl Ht0 Ht1 Ht2 Ht3 Hrep Hp Hvalid Hfit.
  unfold r_share_block_n in *. change REFERENCE_COUNT_OFFSET with 0 in *. unfold a_share.
  destruct (Z.eqb_spec p 0) as [->|Hp0].
  - (* null: the branch skips the update *)
    exists s. split; [now apply skip_zero|]. now split.
  - destruct Hvalid as [?|Hvalid]; [contradiction|].
    destruct (skip_placed _ _ _ _ _ Hpl) as [Hcode _].
    eexists. split; [|split].
    + eapply skip_nonzero; [exact Hpl | exact Hp | exact Hp0 |].
      exec_next Hcode 0%nat step_LW0; [exact Hp | exact Hvalid |].
      exec_next Hcode 1%nat step_ADDI; [regs; reflexivity | exact Hfit |].
      exec_next Hcode 2%nat step_SW0; [regs; exact Hp | regs; reflexivity | exact Hvalid |].
      apply star_refl.
    + rewrite (proj1 Hrep). apply represents_sstore; [|now apply valid_pos].
      do 2 (apply represents_rset; [|discriminate..]). exact Hrep.
    + intros r Hr. regs. reflexivity.
Qed.

(* clobbers TEMP; FREE changes as the abstract `erase` says *)
Lemma r_erase_block_code : forall t lc,
  fst (r_erase_block t lc) =
  fst (skip_if_zero t (LW TEMP t 0 :: fst (if_zero_then_else TEMP [SW FREE t 0; MV FREE t] [ADDI TEMP TEMP (-1); SW TEMP t 0] lc)) (lc + 2)).
Proof. reflexivity. Qed.

Theorem rv_erase_block_refines : forall im i t lc s h p,
  placed im i (fst (r_erase_block t lc)) ->
  t <> ZERO -> t <> TEMP -> t <> HEAP -> t <> FREE ->
  represents s h -> rget s t = Some p -> (p = 0 \/ valid_addr p) ->
  exists s',
    star im i s (padd i (List.length (fst (r_erase_block t lc)))) s' /\
    represents s' (a_erase p h) /\
    (forall r, r <> TEMP -> r <> FREE -> rget s' r = rget s r).
Proof.
  intros im i t lc s h p Hpl Ht0 Ht1 Ht2 Ht3 Hrep Hp Hvalid.
  rewrite r_erase_block_code in *. unfold a_erase.
  destruct (Z.eqb_spec p 0) as [->|Hp0].
  - exists s. split; [now apply skip_zero|]. now split.
  - destruct Hvalid as [?|Hvalid]; [contradiction|].
    assert (Hpos : 0 < p) by now apply valid_pos.
    pose proof (skip_placed _ _ _ _ _ Hpl) as Hb. apply (placed_app im _ [_]) in Hb as [[CL _] Hite].
    destruct (ite_placed _ _ _ _ _ _ Hite) as [[Cel _] [Cth _]].
    destruct Hrep as (Hw & Hhp & Hfp). rewrite <- Hw.
    set (s1 := rset s TEMP (Some (hword s p))).
    assert (HL1 : star im (padd i 1) s (padd (padd i 1) 1) s1).
    { exec_next CL 0%nat step_LW0; [exact Hp | exact Hvalid |]. apply star_refl. }
    assert (Hrep1 : represents s1 h) by (apply represents_rset; [now split|discriminate..]).
    destruct (Z.eqb_spec (hword s p) 0) as [Hz|Hnz].
    + (* reference count 0: the block goes onto the lazy free list *)
      eexists. split; [|split].
      * eapply skip_nonzero; [exact Hpl | exact Hp | exact Hp0 |]. eapply star_trans; [exact HL1|].
        apply (ite_zero im _ TEMP _ _ lc s1 _ Hite); [unfold s1; regs; now rewrite Hz|].
        exec_next Cth 0%nat step_SW0; [unfold s1; regs; exact Hp | unfold s1; regs; exact Hfp | exact Hvalid |].
        exec_next Cth 1%nat step_MV. apply star_refl.
      * unfold s1. regs. rewrite Hp.
        split; [|split]; cbn [words hp fp]; [|regs; exact Hhp|regs; reflexivity].
        intros a. rewrite hword_rset, hword_sstore by assumption. rewrite hword_rset.
        unfold upd. destruct (a =? p); [reflexivity|apply Hw].
      * intros r Hr Hr'. unfold s1. regs. reflexivity.
    + (* other references remain: decrement *)
      eexists. split; [|split].
      * eapply skip_nonzero; [exact Hpl | exact Hp | exact Hp0 |]. eapply star_trans; [exact HL1|].
        apply (ite_nonzero im _ TEMP _ _ lc s1 _ (hword s p) Hite); [unfold s1; regs; reflexivity | exact Hnz |].
        exec_next Cel 0%nat step_ADDI; [unfold s1; regs; reflexivity | reflexivity |].
        exec_next Cel 1%nat step_SW0; [unfold s1; regs; exact Hp | regs; reflexivity | exact Hvalid |].
        apply star_refl.
      * rewrite (Hw p). apply represents_sstore; [|assumption].
        apply represents_rset; [exact Hrep1|discriminate..].
      * intros r Hr Hr'. unfold s1. regs. reflexivity.
Qed.

(* release_block: what `load` emits in release mode *)
Theorem rv_release_block_refines : forall im i t s h b,
  placed im i (release_block t) ->
  t <> ZERO -> t <> HEAP ->
  represents s h -> rget s t = Some b -> valid_addr b ->
  exists s',
    star im i s (padd i 2) s' /\
    represents s' (a_release b h) /\
    (forall r, r <> HEAP -> rget s' r = rget s r).
Proof.
  intros im i t s h b [Hcode HL] Ht0 Ht2 (Hw & Hhp & Hfp) Hb Hvalid.
  unfold release_block in *. change NEXT_ELEMENT_OFFSET with 0 in *. cbn [padd].
  assert (Hpos : 0 < b) by (now apply valid_pos).
  eexists. split; [|split].
  - exec_next Hcode 0%nat step_SW0; [exact Hb | exact Hhp | exact Hvalid |].
    exec_next Hcode 1%nat step_MV. apply star_refl.
  - split; [|split]; cbn [words hp fp a_release].
    + intros a. rewrite hword_rset, hword_sstore by assumption. unfold upd. destruct (a =? b); [reflexivity|apply Hw].
    + regs. exact Hb.
    + regs. exact Hfp.
  - intros r Hr. regs. reflexivity.
Qed.

Definition valid_block (b : Z) : Prop := forall k, 0 <= k < 8 -> valid_addr (b + 8 * k).

Fixpoint erase_children (b : Z) (ks : list N) (h : aheap) : aheap :=
  match ks with
  | [] => h
  | k :: r => erase_children b r (a_erase (words h (b + field_offset Fst k)) h)
  end.
Fixpoint children_ok (b : Z) (ks : list N) (h : aheap) : Prop :=
  match ks with
  | [] => True
  | k :: r => let c := words h (b + field_offset Fst k) in
              (c = 0 \/ valid_addr c) /\ children_ok b r (a_erase c h)
  end.

(* Appendix D's `acquire` on words: the block handed out and the heap afterwards.
   (1) the linear free list has a next element; (3) bump allocation from the untouched part
   (the lazy list's head has a zero header); (2) the head of the lazy free list becomes the next
   linear block and its three children are erased. *)
Definition a_acquire (h : aheap) : Z * aheap :=
  let r := hp h in
  let h' := words h r in
  if negb (h' =? 0) then (r, {| words := upd (words h) r 0; hp := h'; fp := fp h |})
  else
    let h2 := fp h in
    let f' := words h h2 in
    if f' =? 0 then (r, {| words := words h; hp := h2; fp := wrap (h2 + field_offset Fst FIELDS_PER_BLOCK) |})
    else (r, erase_children h2 [0; 1; 2]%N {| words := upd (words h) h2 0; hp := h2; fp := f' |}).

Lemma hp_a_erase : forall p h, hp (a_erase p h) = hp h.
Proof. intros. unfold a_erase. destruct (p =? 0); [reflexivity|]. destruct (words h p =? 0); reflexivity. Qed.

Lemma acquire_block_code : forall t t2 lc,
  fst (acquire_block t t2 lc) =
  [MV t HEAP; LW HEAP HEAP 0] ++
  fst (if_zero_then_else HEAP
         ([MV HEAP FREE; LW FREE FREE 0] ++
          fst (if_zero_then_else FREE [ADDI FREE HEAP 64]
                 ([SW ZERO HEAP 0] ++ ([LW t2 HEAP 16] ++ fst (r_erase_block t2 lc))
                                   ++ ([LW t2 HEAP 32] ++ fst (r_erase_block t2 (lc + 2 + 1)))
                                   ++ ([LW t2 HEAP 48] ++ fst (r_erase_block t2 (lc + 2 + 1 + 2 + 1))))
                 (lc + 2 + 1 + 2 + 1 + 2 + 1)))
         [SW ZERO t 0] (lc + 2 + 1 + 2 + 1 + 2 + 1 + 2)).
Proof. reflexivity. Qed.

(* one child of the block at b: LW t2 HEAP off; erase_block t2 *)
Lemma rv_erase_field_refines : forall im j t2 lc off s h b,
  placed im j ([LW t2 HEAP off] ++ fst (r_erase_block t2 lc)) ->
  t2 <> ZERO -> t2 <> TEMP -> t2 <> HEAP -> t2 <> FREE ->
  represents s h -> hp h = b -> valid_addr (b + off) -> fits12 off = true ->
  (words h (b + off) = 0 \/ valid_addr (words h (b + off))) ->
  exists s', star im j s (padd (padd j 1) (List.length (fst (r_erase_block t2 lc)))) s' /\
             represents s' (a_erase (words h (b + off)) h) /\
             (forall r, r <> t2 -> r <> TEMP -> r <> FREE -> rget s' r = rget s r).
Proof.
  intros im j t2 lc off s h b Hpl Hu0 Hu1 Hu2 Hu3 Hrep Hb Hvo Hfo Hcv.
  apply placed_app in Hpl as [[CL _] Hpe]. destruct Hrep as (Hw & Hhp & Hfp).
  destruct (rv_erase_block_refines im (padd j 1) t2 lc (rset s t2 (Some (hword s (b + off)))) h
              (words h (b + off)) Hpe Hu0 Hu1 Hu2 Hu3) as (s' & Hs' & Hr' & Hf').
  - apply represents_rset; [now split|assumption..].
  - regs. now rewrite Hw.
  - exact Hcv.
  - exists s'. split; [|split].
    + exec_next CL 0%nat step_LW; [rewrite Hhp, Hb; reflexivity | exact Hfo | exact Hvo |]. exact Hs'.
    + exact Hr'.
    + intros r H1 H2 H3. rewrite Hf' by assumption. regs. reflexivity.
Qed.

Theorem rv_acquire_block_refines : forall im i t t2 lc s h,
  placed im i (fst (acquire_block t t2 lc)) ->
  t <> ZERO -> t <> TEMP -> t <> HEAP -> t <> FREE ->
  t2 <> ZERO -> t2 <> TEMP -> t2 <> HEAP -> t2 <> FREE -> t <> t2 ->
  represents s h ->
  valid_addr (hp h) ->
  (words h (hp h) = 0 -> valid_block (fp h)) ->
  (words h (hp h) = 0 -> words h (fp h) <> 0 ->
     children_ok (fp h) [0; 1; 2]%N {| words := upd (words h) (fp h) 0; hp := fp h; fp := words h (fp h) |}) ->
  exists s',
    star im i s (padd i (List.length (fst (acquire_block t t2 lc)))) s' /\
    represents s' (snd (a_acquire h)) /\
    rget s' t = Some (fst (a_acquire h)) /\
    (forall r, r <> t -> r <> t2 -> r <> TEMP -> r <> HEAP -> r <> FREE -> rget s' r = rget s r).
Proof.
  intros im i t t2 lc s h Hpl Ht0 Ht1 Ht2 Ht3 Hu0 Hu1 Hu2 Hu3 Htu (Hw & Hhp & Hfp) Hvr Hvb Hch.
  rewrite acquire_block_code in *. rewrite app_length, padd_add. cbn [List.length].
  apply placed_app in Hpl as [[C0 _] Pout]. cbn [List.length] in Pout.
  destruct (ite_placed _ _ _ _ _ _ Pout) as [[Cel _] Pth].
  apply placed_app in Pth as [[Ct _] Pin]. cbn [List.length] in Pin.
  destruct (ite_placed _ _ _ _ _ _ Pin) as [Pie [Cit _]].
  assert (Hrpos : 0 < hp h) by now apply valid_pos.
  (* the block handed out, and the header of the linear free list's head *)
  set (s2 := rset (rset s t (Some (hp h))) HEAP (Some (words h (hp h)))).
  assert (H2 : star im i s (padd i 2) s2).
  { exec_next C0 0%nat step_MV. exec_next C0 1%nat step_LW0; [regs; exact Hhp | exact Hvr |].
    rewrite Hhp, hword_rset, Hw. apply star_refl. }
  unfold a_acquire.
  destruct (Z.eqb_spec (words h (hp h)) 0) as [Hz|Hnz]; cbn [negb].
  2:{ (* (1) next element of the linear free list *)
    eexists. split; [|split; [|split]].
    - eapply star_trans; [exact H2|].
      apply (ite_nonzero im _ HEAP _ _ _ s2 _ (words h (hp h)) Pout); [unfold s2; regs; reflexivity | exact Hnz |].
      exec_next Cel 0%nat step_SW0; [unfold s2; regs; reflexivity | reflexivity | exact Hvr |]. apply star_refl.
    - cbn [snd]. unfold s2. split; [|split]; cbn [words hp fp].
      + intros a. rewrite hword_sstore by assumption. rewrite !hword_rset.
        unfold upd. destruct (a =? hp h); [reflexivity|apply Hw].
      + regs. reflexivity.
      + regs. exact Hfp.
    - cbn [fst]. unfold s2. regs. reflexivity.
    - intros r H1 H2' H3 H4 H5. unfold s2. regs. reflexivity. }
  specialize (Hvb Hz).
  assert (Hf0 : valid_addr (fp h)) by (replace (fp h) with (fp h + 8 * 0) by lia; apply Hvb; lia).
  assert (Hfpos : 0 < fp h) by now apply valid_pos.
  assert (Hs2H : rget s2 HEAP = Some 0) by (unfold s2; regs; now rewrite Hz).
  assert (Hs2F : rget s2 FREE = Some (fp h)) by (unfold s2; regs; exact Hfp).
  assert (Hs2w : forall a, hword s2 a = words h a) by (intros; unfold s2; rewrite !hword_rset; apply Hw).
  destruct (Z.eqb_spec (words h (fp h)) 0) as [Hfz|Hfnz].
  - (* (3) bump allocation *)
    eexists. split; [|split; [|split]].
    + eapply star_trans; [exact H2|]. apply (ite_zero im _ HEAP _ _ _ s2 _ Pout Hs2H).
      rewrite app_length, padd_add. cbn [List.length].
      exec_next Ct 0%nat step_MV. exec_next Ct 1%nat step_LW0; [unfold s2; regs; exact Hfp | exact Hf0 |].
      apply (ite_zero im _ FREE _ _ _ _ _ Pin); [unfold s2; regs; now rewrite !hword_rset, Hw, Hfz|].
      exec_next Cit 0%nat step_ADDI; [unfold s2; regs; exact Hfp | reflexivity |]. apply star_refl.
    + cbn [snd]. unfold s2. split; [|split]; cbn [words hp fp].
      * intros a. rewrite !hword_rset. apply Hw.
      * regs. exact Hfp.
      * regs. reflexivity.
    + cbn [fst]. unfold s2. regs. reflexivity.
    + intros r H1 H2' H3 H4 H5. unfold s2. regs. reflexivity.
  - (* (2) head of the lazy free list, children erased *)
    specialize (Hch Hz Hfnz). cbn [children_ok] in Hch.
    change (field_offset Fst 0) with 16 in Hch. change (field_offset Fst 1) with 32 in Hch.
    change (field_offset Fst 2) with 48 in Hch.
    destruct Hch as (Hc1 & Hc2 & Hc3 & _).
    set (h1 := {| words := upd (words h) (fp h) 0; hp := fp h; fp := words h (fp h) |}) in *.
    assert (Hv16 : valid_addr (fp h + 16)) by (replace 16 with (8 * 2) by lia; apply Hvb; lia).
    assert (Hv32 : valid_addr (fp h + 32)) by (replace 32 with (8 * 4) by lia; apply Hvb; lia).
    assert (Hv48 : valid_addr (fp h + 48)) by (replace 48 with (8 * 6) by lia; apply Hvb; lia).
    apply (placed_app im _ [_]) in Pie as [[Csw _] Pch]. cbn [List.length] in Pch.
    apply placed_app in Pch as [P1 Pch]. apply placed_app in Pch as [P2 P3].
    (* up to the first child *)
    set (s9 := sstore (rset (rset s2 HEAP (Some (fp h))) FREE (Some (words h (fp h)))) (fp h) 0).
    assert (Hrep9 : represents s9 h1).
    { unfold s9, s2, h1. split; [|split]; cbn [words hp fp].
      - intros a. rewrite hword_sstore by assumption. rewrite !hword_rset.
        unfold upd. destruct (a =? fp h); [reflexivity|apply Hw].
      - regs. reflexivity.
      - regs. reflexivity. }
    destruct (rv_erase_field_refines im _ t2 lc 16 s9 h1 (fp h) P1 Hu0 Hu1 Hu2 Hu3 Hrep9 eq_refl Hv16 eq_refl Hc1)
      as (sB1 & HsB1 & HrB1 & HfB1).
    set (hB1 := a_erase (words h1 (fp h + 16)) h1) in *.
    destruct (rv_erase_field_refines im _ t2 _ 32 sB1 hB1 (fp h) P2 Hu0 Hu1 Hu2 Hu3 HrB1 (hp_a_erase _ _) Hv32 eq_refl Hc2)
      as (sB2 & HsB2 & HrB2 & HfB2).
    set (hB2 := a_erase (words hB1 (fp h + 32)) hB1) in *.
    assert (HhpB2 : hp hB2 = fp h) by (unfold hB2; rewrite hp_a_erase; apply hp_a_erase).
    destruct (rv_erase_field_refines im _ t2 _ 48 sB2 hB2 (fp h) P3 Hu0 Hu1 Hu2 Hu3 HrB2 HhpB2 Hv48 eq_refl Hc3)
      as (sB3 & HsB3 & HrB3 & HfB3).
    exists sB3. split; [|split; [|split]].
    + eapply star_trans; [exact H2|]. apply (ite_zero im _ HEAP _ _ _ s2 _ Pout Hs2H).
      rewrite app_length, padd_add. cbn [List.length].
      exec_next Ct 0%nat step_MV. exec_next Ct 1%nat step_LW0; [unfold s2; regs; exact Hfp | exact Hf0 |].
      eapply (ite_nonzero im _ FREE _ _ _ _ _ (words h (fp h)) Pin);
        [unfold s2; regs; now rewrite !hword_rset, Hw | exact Hfnz |].
      rewrite !app_length, !padd_add. cbn [List.length].
      exec_next Csw 0%nat step_SW0; [regs; exact Hs2F | reflexivity | exact Hf0 |].
      rewrite Hs2F, hword_rset, Hs2w.
      eapply star_trans; [exact HsB1|]. eapply star_trans; [exact HsB2|]. exact HsB3.
    + cbn [snd erase_children].
      change (field_offset Fst 0) with 16. change (field_offset Fst 1) with 32. change (field_offset Fst 2) with 48.
      exact HrB3.
    + cbn [fst]. rewrite HfB3, HfB2, HfB1 by congruence. unfold s9, s2. regs. reflexivity.
    + intros r H1 H2' H3 H4 H5. rewrite HfB3, HfB2, HfB1 by assumption. unfold s9, s2. regs. reflexivity.
Qed.

(* One closed instance of the whole statement (not a proof of C08):
   main(n) { lit x <- 2; y <- n * x; let nil = Nil; let l = Cons(y, nil);
             switch l { Nil => exit n, Cons(h, t) => r <- h + x; exit r } }
   compiled by the model and run on the ISA semantics gives what the linear machine gives. *)
Definition ex_list : ident := ("List", 0%N).
Definition ex_prog : prog :=
  let v (s : string) (n : N) : ident := (s, n) in
  let n := v "n" 1%N in let x := v "x" 2%N in let y := v "y" 3%N in let nil := v "nil" 4%N in
  let l := v "l" 5%N in let hd := v "h" 6%N in let tl := v "t" 7%N in let r := v "r" 8%N in
  let tyl := Decl ex_list in
  {| pdefs := [ {| dname := ("main", 0%N); dctx := [mkb n Ext I64];
                   dbody :=
                     Literal 2 x (Op n Prod x y
                       (Let nil tyl ("Nil", 0%N) []
                         (Let l tyl ("Cons", 0%N) [mkb y Ext I64; mkb nil Prd tyl]
                           (Switch l tyl
                              [ (("Nil", 0%N), [], Exit n);
                                (("Cons", 0%N), [mkb hd Ext I64; mkb tl Prd tyl], Op hd Sum x r (Exit r)) ])))) |} ];
     ptypes := [ {| tname := ex_list;
                    txtors := [ {| xname := ("Nil", 0%N); xargs := [] |};
                                {| xname := ("Cons", 0%N); xargs := [mkb ("x", 0%N) Ext I64; mkb ("xs", 0%N) Prd tyl] |} ] |} ];
     pmax := 8%N |}.

Theorem rv_end_to_end_example :
  exists cs n lc',
    rv_compile ex_prog 0%N = Ok (cs, n, lc') /\
    (forall a, In a [0; 5; -7; 4611686018427387904] ->
       fst (run_rv 10 1000 cs [a]) = run_linear 100 ex_prog [a] /\
       run_linear 100 ex_prog [a] = ([], OExit (wrap (wrap (a * 2) + 2)))).
Proof.
  do 3 eexists. split; [vm_compute; reflexivity|].
  intros a Ha. cbn [In] in Ha.
  assert (L : run_linear 100 ex_prog [a] = ([], OExit (wrap (wrap (a * 2) + 2))))
    by (repeat (destruct Ha as [<-|Ha]; [vm_compute; reflexivity|]); contradiction).
  split; [rewrite L|exact L].
  repeat (destruct Ha as [<-|Ha]; [vm_compute; reflexivity|]). contradiction.
Qed.

Definition regv (s : rstate) (r : N) : Z := match rget s r with Some v => v | None => 0 end.
(* the register of slot n of environment position pos *)
Definition pos_reg (n : tnum) (pos : nat) : N := (2 * N.of_nat pos + tnum_n n + RESERVED)%N.

Lemma r_fresh_ok : forall n c t, r_fresh n c = Ok t -> t = pos_reg n (List.length c).
Proof.
  intros n c t H. unfold r_fresh, temporary_from_position in H.
  destruct (N.ltb _ _); [|discriminate]. injection H as <-. reflexivity.
Qed.
Lemma pos_reg_reserved : forall n pos, (4 <= pos_reg n pos)%N.
Proof. intros. unfold pos_reg. change RESERVED with 4%N. lia. Qed.
Lemma ge4_regs : forall t, (4 <= t)%N -> t <> ZERO /\ t <> TEMP /\ t <> HEAP /\ t <> FREE.
Proof. change ZERO with 0%N. change TEMP with 1%N. change HEAP with 2%N. change FREE with 3%N. lia. Qed.
Lemma pos_reg_regs : forall n p,
  pos_reg n p <> ZERO /\ pos_reg n p <> TEMP /\ pos_reg n p <> HEAP /\ pos_reg n p <> FREE.
Proof. intros. apply ge4_regs, pos_reg_reserved. Qed.
Lemma pos_reg_inj : forall n n' p p', pos_reg n p = pos_reg n' p' -> n = n' /\ p = p'.
Proof.
  intros n n' p p' H. unfold pos_reg in H. change RESERVED with 4%N in H.
  destruct n, n'; cbn [tnum_n] in H; split; try reflexivity; try lia.
Qed.

Lemma field_offset_val : forall n k, field_offset n k = 8 * (2 + 2 * Z.of_N k + Z.of_N (tnum_n n)).
Proof. intros. unfold field_offset, address. change RVC.address1 with 8. reflexivity. Qed.
Lemma field_valid : forall b n k, valid_block b -> (k < 3)%N -> valid_addr (b + field_offset n k).
Proof.
  intros b n k Hb Hk. rewrite field_offset_val. apply Hb. destruct n; cbn [tnum_n]; lia.
Qed.
Lemma field_fits12 : forall n k, (k < 3)%N -> fits12 (field_offset n k) = true.
Proof.
  intros n k Hk. rewrite field_offset_val. unfold fits12. destruct n; cbn [tnum_n]; apply andb_true_intro; split; apply Z.leb_le; lia.
Qed.

(* the two stores of one value: the second slot, then the first slot (x0 for an integer) *)
Lemma store_value_code : forall x rem blk k c,
  store_value x rem blk k = Ok c ->
  c = [SW (pos_reg Snd (List.length rem)) blk (field_offset Snd k);
       SW (match bchi x with Ext => ZERO | _ => pos_reg Fst (List.length rem) end) blk (field_offset Fst k)].
Proof.
  intros x rem blk k c H. unfold store_value, store_field in H.
  destruct (r_fresh Snd rem) as [tS|] eqn:ES; [|discriminate]. apply r_fresh_ok in ES. subst tS. cbn [rbind] in H.
  destruct (bchi x); [| |now injection H as <-].
  all: destruct (r_fresh Fst rem) as [tF|] eqn:EF; [|discriminate]; apply r_fresh_ok in EF; subst tF; now injection H as <-.
Qed.

Fixpoint sv_spec (s : rstate) (to_store_rev : list binding) (E : nat) (b : Z) (ff : N) (w : Z -> Z) : Z -> Z :=
  match to_store_rev with
  | [] => fold_left (fun w k => upd w (b + field_offset Fst k) 0) (nseq 0 ff) w
  | x :: rest_rev =>
      let L := (E + List.length rest_rev)%nat in
      let w1 := upd w (b + field_offset Snd (ff - 1)) (regv s (pos_reg Snd L)) in
      let w2 := upd w1 (b + field_offset Fst (ff - 1))
                    (match bchi x with Ext => 0 | _ => regv s (pos_reg Fst L) end) in
      sv_spec s rest_rev E b (ff - 1) w2
  end.
Fixpoint sv_defined (s : rstate) (to_store_rev : list binding) (E : nat) : Prop :=
  match to_store_rev with
  | [] => True
  | x :: rest_rev =>
      let L := (E + List.length rest_rev)%nat in
      rget s (pos_reg Snd L) <> None /\ (bchi x <> Ext -> rget s (pos_reg Fst L) <> None) /\
      sv_defined s rest_rev E
  end.

Lemma upd_ext : forall w w' a v, (forall x, w x = w' x) -> forall x, upd w a v x = upd w' a v x.
Proof. intros w w' a v H x. unfold upd. destruct (x =? a); [reflexivity|apply H]. Qed.
(* the spec depends on the word function only extensionally *)
Lemma sv_spec_ext : forall s l E b ff w w',
  (forall a, w a = w' a) -> forall a, sv_spec s l E b ff w a = sv_spec s l E b ff w' a.
Proof.
  intros s l. induction l as [|y l IH]; intros E b ff w w' Hww; cbn [sv_spec].
  - revert w w' Hww. induction (nseq 0 ff) as [|k ks IHk]; intros w w' Hww; cbn [fold_left]; [exact Hww|].
    apply IHk. now apply upd_ext.
  - apply IH. now do 2 apply upd_ext.
Qed.

Lemma rget_regv : forall s r, rget s r <> None -> rget s r = Some (regv s r).
Proof. intros s r H. unfold regv. destruct (rget s r); [reflexivity|contradiction]. Qed.

Lemma nseq_succ : forall n, nseq 0 (N.succ n) = nseq 0 n ++ [n].
Proof.
  intros n. unfold nseq. rewrite N2Nat.inj_succ, seq_S, map_app. cbn. now rewrite N2Nat.id.
Qed.

Lemma store_zeros_exec : forall im ff i s s0 b,
  (ff <= 3)%N -> at_code im i (store_zeros ff HEAP) ->
  (forall r, rget s r = rget s0 r) -> rget s0 HEAP = Some b -> valid_block b ->
  exists s', star im i s (padd i (List.length (store_zeros ff HEAP))) s' /\
             (forall r, rget s' r = rget s0 r) /\
             (forall a, hword s' a = fold_left (fun w k => upd w (b + field_offset Fst k) 0) (nseq 0 ff) (hword s) a).
Proof.
  intros im ff. induction ff as [|ff IH] using N.peano_ind; intros i s s0 b Hff Hcode Hregs Hb Hvb.
  - exists s. cbn. repeat split; auto. apply star_refl.
  - unfold store_zeros in *. rewrite nseq_succ in *. rewrite flat_map_app in *. cbn [flat_map store_zero app] in *.
    apply at_code_app in Hcode as [Hc1 Hc2].
    destruct (IH i s s0 b ltac:(lia) Hc1 Hregs Hb Hvb) as (s1 & Hs1 & Hr1 & Hw1).
    eexists. split; [|split].
    + rewrite app_length, padd_add. eapply star_trans; [exact Hs1|].
      exec_next Hc2 0%nat step_SW; [rewrite Hr1; exact Hb | rewrite Hr1; reflexivity | apply field_fits12; lia | apply field_valid; [assumption|lia] |].
      apply star_refl.
    + intros r. regs. apply Hr1.
    + intros a. rewrite fold_left_app. cbn [fold_left].
      rewrite hword_sstore by (apply valid_pos, field_valid; [assumption|lia]).
      unfold upd. destruct (a =? b + field_offset Fst ff); [reflexivity|apply Hw1].
Qed.

Theorem rv_store_values_refines : forall im to_store_rev remaining ff cs i s s0 b,
  store_values to_store_rev remaining HEAP ff = Ok cs ->
  (N.of_nat (List.length to_store_rev) <= ff)%N -> (ff <= 3)%N ->
  at_code im i cs ->
  (forall r, rget s r = rget s0 r) -> rget s0 HEAP = Some b -> valid_block b ->
  sv_defined s0 to_store_rev (List.length remaining) ->
  exists s',
    star im i s (padd i (List.length cs)) s' /\
    (forall r, rget s' r = rget s0 r) /\
    (forall a, hword s' a = sv_spec s0 to_store_rev (List.length remaining) b ff (hword s) a).
Proof.
  intros im to_store_rev. induction to_store_rev as [|x rest_rev IH]; intros remaining ff cs i s s0 b Hsv Hlen Hff Hcode Hregs Hb Hvb Hdef.
  - cbn [store_values] in Hsv. injection Hsv as <-. cbn [sv_spec]. now apply store_zeros_exec.
  - cbn [store_values] in Hsv. cbn [List.length] in Hlen.
    destruct (store_value x (remaining ++ rev rest_rev) HEAP (ff - 1)) as [c1|] eqn:E1; [|discriminate]. cbn [rbind] in Hsv.
    destruct (store_values rest_rev remaining HEAP (ff - 1)) as [c2|] eqn:E2; [|discriminate]. cbn [rbind] in Hsv.
    injection Hsv as <-.
    cbn [sv_defined] in Hdef. destruct Hdef as (Hd1 & Hd2 & Hd3).
    assert (HL : List.length (remaining ++ rev rest_rev) = (List.length remaining + List.length rest_rev)%nat)
      by (rewrite app_length, rev_length; reflexivity).
    apply at_code_app in Hcode as [Hc1 Hc2].
    assert (Hk : (ff - 1 < 3)%N) by lia.
    (* the two stores of this value *)
    assert (H1 : exists s1, star im i s (padd i (List.length c1)) s1 /\ (forall r, rget s1 r = rget s0 r) /\
                 (forall a, hword s1 a =
                    upd (upd (hword s) (b + field_offset Snd (ff - 1)) (regv s0 (pos_reg Snd (List.length remaining + List.length rest_rev))))
                        (b + field_offset Fst (ff - 1))
                        (match bchi x with Ext => 0 | _ => regv s0 (pos_reg Fst (List.length remaining + List.length rest_rev)) end) a)).
    { apply store_value_code in E1. rewrite HL in E1. subst c1.
      set (L := (List.length remaining + List.length rest_rev)%nat) in *.
      assert (HF : rget s0 (match bchi x with Ext => ZERO | _ => pos_reg Fst L end)
                   = Some (match bchi x with Ext => 0 | _ => regv s0 (pos_reg Fst L) end)).
      { destruct (bchi x) eqn:Echi; [apply rget_regv, Hd2; discriminate | apply rget_regv, Hd2; discriminate | reflexivity]. }
      eexists. split; [|split].
      - exec_next Hc1 0%nat step_SW; [rewrite Hregs; exact Hb | rewrite Hregs; apply rget_regv; exact Hd1 | now apply field_fits12 | now apply field_valid |].
        exec_next Hc1 1%nat step_SW; [regs; rewrite Hregs; exact Hb | regs; rewrite Hregs; exact HF | now apply field_fits12 | now apply field_valid |].
        apply star_refl.
      - intros r. regs. apply Hregs.
      - intros a. rewrite !hword_sstore by (apply valid_pos; now apply field_valid). reflexivity. }
    destruct H1 as (s1 & Hs1 & Hr1 & Hw1).
    destruct (IH remaining (ff - 1)%N c2 (padd i (List.length c1)) s1 s0 b E2 ltac:(lia) ltac:(lia) Hc2 Hr1 Hb Hvb Hd3)
      as (s2 & Hs2 & Hr2 & Hw2).
    exists s2. split; [|split].
    + rewrite app_length, padd_add. eapply star_trans; eassumption.
    + exact Hr2.
    + intros a. rewrite Hw2. cbn [sv_spec].
      apply sv_spec_ext. exact Hw1.
Qed.

Lemma r_store_one_block : forall to_store remaining lc cs lc',
  to_store <> [] -> (List.length to_store <= 3)%nat ->
  r_store to_store remaining lc = Ok (cs, lc') ->
  exists sv,
    store_values (rev to_store) remaining HEAP 3 = Ok sv /\
    cs = sv ++ fst (acquire_block (pos_reg Fst (List.length remaining)) (pos_reg Snd (List.length remaining)) lc) /\
    lc' = snd (acquire_block (pos_reg Fst (List.length remaining)) (pos_reg Snd (List.length remaining)) lc).
Proof.
  intros to_store remaining lc cs lc' Hne Hlen H.
  unfold r_store in H. cbn [store_fields] in H.
  destruct to_store as [|x r]; [contradiction|].
  change (FIELDS_PER_BLOCK - bp_n Last)%N with 3%N in H.
  assert (Hle : N.leb (N.of_nat (List.length (x :: r))) 3 = true) by (apply N.leb_le; lia).
  rewrite Hle in H. change (N.to_nat 0) with 0%nat in H. cbn [firstn skipn] in H.
  rewrite app_nil_r in H. cbn [rbind] in H.
  destruct (store_values (rev (x :: r)) remaining HEAP 3) as [sv|] eqn:Esv; [|discriminate]. cbn [rbind] in H.
  destruct (r_fresh Fst remaining) as [t|] eqn:Et; [|discriminate]. cbn [rbind] in H.
  destruct (r_fresh Snd remaining) as [t2|] eqn:Et2; [|discriminate]. cbn [rbind] in H.
  apply r_fresh_ok in Et. apply r_fresh_ok in Et2. subst t t2.
  destruct (acquire_block (pos_reg Fst (List.length remaining)) (pos_reg Snd (List.length remaining)) lc) as [c2 lc2] eqn:EA.
  cbn [List.length store_fields rbind] in H. injection H as <- <-.
  exists sv. split; [reflexivity|]. cbn [fst snd]. now rewrite app_nil_r.
Qed.

(* The code emitted for `let`/`create` storing 1..3 values: the values of the last |to_store|
   environment positions are written into the block HEAP points to (unused first slots zeroed,
   first slot of an integer field zeroed), then the block is acquired into the first register of
   the position after the remaining context and HEAP/FREE are re-established as the abstract
   `acquire` says.  Registers of the remaining context are untouched. *)
Theorem rv_store_one_block_refines : forall im i to_store remaining lc cs lc' s h,
  to_store <> [] -> (List.length to_store <= 3)%nat ->
  r_store to_store remaining lc = Ok (cs, lc') ->
  placed im i cs ->
  represents s h -> valid_block (hp h) ->
  sv_defined s (rev to_store) (List.length remaining) ->
  let h1 := {| words := sv_spec s (rev to_store) (List.length remaining) (hp h) 3 (words h); hp := hp h; fp := fp h |} in
  (words h1 (hp h) = 0 -> valid_block (fp h)) ->
  (words h1 (hp h) = 0 -> words h1 (fp h) <> 0 ->
     children_ok (fp h) [0; 1; 2]%N {| words := upd (words h1) (fp h) 0; hp := fp h; fp := words h1 (fp h) |}) ->
  exists s',
    star im i s (padd i (List.length cs)) s' /\
    represents s' (snd (a_acquire h1)) /\
    rget s' (pos_reg Fst (List.length remaining)) = Some (hp h) /\
    (forall r, (4 <= r)%N -> (r < pos_reg Fst (List.length remaining))%N -> rget s' r = rget s r).
Proof.
  intros im i to_store remaining lc cs lc' s h Hne Hlen Hst Hpl Hrep Hvb Hdef h1 Hc3 Hc2.
  destruct (r_store_one_block _ _ _ _ _ Hne Hlen Hst) as (sv & Hsv & -> & _).
  apply placed_app in Hpl as [[Hcsv _] Hpacq].
  destruct Hrep as (Hw & Hhp & Hfp).
  destruct (rv_store_values_refines im (rev to_store) remaining 3 sv i s s (hp h) Hsv
              ltac:(rewrite rev_length; lia) ltac:(lia) Hcsv (fun r => eq_refl) Hhp Hvb Hdef) as (s1 & Hs1 & Hr1 & Hw1).
  set (t := pos_reg Fst (List.length remaining)) in *. set (t2 := pos_reg Snd (List.length remaining)) in *.
  destruct (pos_reg_regs Fst (List.length remaining)) as (Ht0 & Ht1 & Ht2 & Ht3). fold t in Ht0, Ht1, Ht2, Ht3.
  destruct (pos_reg_regs Snd (List.length remaining)) as (Hu0 & Hu1 & Hu2 & Hu3). fold t2 in Hu0, Hu1, Hu2, Hu3.
  assert (Hrep1 : represents s1 h1).
  { unfold h1. split; [|split]; cbn [words hp fp].
    - intros a. rewrite Hw1.
      apply sv_spec_ext. exact Hw.
    - rewrite Hr1. exact Hhp.
    - rewrite Hr1. exact Hfp. }
  assert (Hvr : valid_addr (hp h1)).
  { cbn [hp h1]. replace (hp h) with (hp h + 8 * 0) by lia. apply Hvb. lia. }
  destruct (rv_acquire_block_refines im (padd i (List.length sv)) t t2 lc s1 h1 Hpacq) as (s2 & Hs2 & Hrep2 & Hts2 & Hfr2);
    try assumption.
  - unfold t, t2. intro Heq. apply pos_reg_inj in Heq as [Heq _]. discriminate.
  - exists s2. split; [|split; [|split]].
    + rewrite app_length, padd_add. eapply star_trans; eassumption.
    + exact Hrep2.
    + rewrite Hts2. unfold a_acquire. cbn [hp h1]. destruct (negb _); [reflexivity|]. destruct (_ =? 0); reflexivity.
    + intros r Hr4 Hrt. destruct (ge4_regs r Hr4) as (_ & R1 & R2 & R3).
      assert (Hlt : (t < t2)%N) by (unfold t, t2, pos_reg; cbn [tnum_n]; lia).
      rewrite Hfr2; [apply Hr1| | |exact R1|exact R2|exact R3]; clear -Hrt Hlt; lia.
Qed.

(* integers against pointers: the two pointer kinds are treated alike everywhere *)
Lemma chi_ext_dec : forall c : chi, c = Ext \/ c <> Ext.
Proof. destruct c; [right|right|left]; congruence. Qed.
Lemma chi_match : forall {X} c (A B : X), c <> Ext -> match c with Ext => A | _ => B end = B.
Proof. intros X c A B H. destruct c; [reflexivity|reflexivity|contradiction]. Qed.

(* the loads of one value: the second slot, for a pointer also the first slot and, in share mode, its share *)
Lemma load_value_code : forall x ex blk k m lc c lc',
  load_value x ex blk k m lc = Ok (c, lc') ->
  let tS := pos_reg Snd (List.length ex) in
  let tF := pos_reg Fst (List.length ex) in
  (c, lc') = match bchi x, m with
             | Ext, _ => ([LW tS blk (field_offset Snd k)], lc)
             | _, Release => ([LW tS blk (field_offset Snd k); LW tF blk (field_offset Fst k)], lc)
             | _, Share => ([LW tS blk (field_offset Snd k); LW tF blk (field_offset Fst k)] ++ fst (r_share_block_n tF 1 lc),
                            snd (r_share_block_n tF 1 lc))
             end.
Proof.
  intros x ex blk k m lc c lc' H. cbv zeta. unfold load_value, load_field in H.
  destruct (r_fresh Snd ex) as [tS|] eqn:ES; [|discriminate]. apply r_fresh_ok in ES. subst tS. cbn [rbind] in H.
  destruct (bchi x); [| |now injection H as <- <-].
  all: destruct (r_fresh Fst ex) as [tF|] eqn:EF; [|discriminate]; apply r_fresh_ok in EF; subst tF; cbn [rbind] in H;
       destruct m; [now injection H as <- <-|].
  all: destruct (r_share_block_n (pos_reg Fst (List.length ex)) 1 lc) as [c3 lc3]; injection H as <- <-; reflexivity.
Qed.
(* release-mode loads draw no labels *)
Lemma load_values_release_lc : forall l ex blk ff lc c lc', load_values l ex blk ff Release lc = Ok (c, lc') -> lc' = lc.
Proof.
  induction l as [|x l IH]; intros ex blk ff lc c lc' H; cbn [load_values] in H; [injection H as _ <-; reflexivity|].
  destruct (load_value x _ blk _ Release lc) as [[c1 lc1]|] eqn:E1; [|discriminate]. cbn [rbind] in H.
  destruct (load_values l ex blk _ Release lc1) as [[c2 lc2]|] eqn:E2; [|discriminate]. cbn [rbind] in H.
  injection H as _ <-. apply IH in E2. apply load_value_code in E1. destruct (bchi x); injection E1 as _ ->; exact E2.
Qed.

Fixpoint lv_spec (w : Z -> Z) (to_load_rev : list binding) (E : nat) (b : Z) (ff : N) (rg : N -> option Z) : N -> option Z :=
  match to_load_rev with
  | [] => rg
  | x :: rest_rev =>
      let L := (E + List.length rest_rev)%nat in
      let rg1 := fun r => if N.eqb r (pos_reg Snd L) then Some (w (b + field_offset Snd (ff - 1))) else rg r in
      let rg2 := match bchi x with
                 | Ext => rg1
                 | _ => fun r => if N.eqb r (pos_reg Fst L) then Some (w (b + field_offset Fst (ff - 1))) else rg1 r
                 end in
      lv_spec w rest_rev E b (ff - 1) rg2
  end.

Lemma lv_spec_cons : forall w x rest_rev E b ff rg,
  lv_spec w (x :: rest_rev) E b ff rg =
  lv_spec w rest_rev E b (ff - 1)
    (match bchi x with
     | Ext => fun r => if N.eqb r (pos_reg Snd (E + List.length rest_rev)) then Some (w (b + field_offset Snd (ff - 1))) else rg r
     | _ => fun r => if N.eqb r (pos_reg Fst (E + List.length rest_rev)) then Some (w (b + field_offset Fst (ff - 1)))
                     else if N.eqb r (pos_reg Snd (E + List.length rest_rev)) then Some (w (b + field_offset Snd (ff - 1))) else rg r
     end).
Proof. intros. cbn [lv_spec]. destruct (bchi x); reflexivity. Qed.

Lemma lv_spec_ext : forall l w w' E b ff rg rg',
  (forall a, w a = w' a) -> (forall r, rg r = rg' r) -> forall r, lv_spec w l E b ff rg r = lv_spec w' l E b ff rg' r.
Proof.
  induction l as [|x l IH]; intros w w' E b ff rg rg' Hw Hr r; cbn [lv_spec]; [apply Hr|].
  apply IH; [assumption|]. intros r'. destruct (bchi x); repeat destruct (N.eqb r' _); try rewrite Hw; try reflexivity; apply Hr.
Qed.

Lemma rget_rset_eqb : forall s t v r, (4 <= t)%N -> rget (rset s t v) r = if N.eqb r t then v else rget s r.
Proof.
  intros s t v r Ht. destruct (N.eqb_spec r t) as [->|Hne].
  - apply rget_rset_same. lia.
  - apply rget_rset_other. congruence.
Qed.

Theorem rv_load_values_release : forall im to_load_rev existing ff cs lc lc' i s b,
  load_values to_load_rev existing (pos_reg Fst (List.length existing)) ff Release lc = Ok (cs, lc') ->
  (N.of_nat (List.length to_load_rev) <= ff)%N -> (ff <= 3)%N ->
  at_code im i cs ->
  rget s (pos_reg Fst (List.length existing)) = Some b -> valid_block b ->
  exists s',
    star im i s (padd i (List.length cs)) s' /\
    (forall r, rget s' r = lv_spec (hword s) to_load_rev (List.length existing) b ff (rget s) r) /\
    (forall a, hword s' a = hword s a) /\ lc' = lc.
Proof.
  intros im to_load_rev. induction to_load_rev as [|x rest_rev IH]; intros existing ff cs lc lc' i s b Hlv Hlen Hff Hcode Hblk Hvb.
  - cbn [load_values] in Hlv. injection Hlv as <- <-. exists s. cbn. repeat split; auto. apply star_refl.
  - cbn [load_values] in Hlv. cbn [List.length] in Hlen.
    destruct (load_value x (existing ++ rev rest_rev) (pos_reg Fst (List.length existing)) (ff - 1) Release lc) as [[c1 lc1]|] eqn:E1; [|discriminate].
    cbn [rbind] in Hlv.
    destruct (load_values rest_rev existing (pos_reg Fst (List.length existing)) (ff - 1) Release lc1) as [[c2 lc2]|] eqn:E2; [|discriminate].
    cbn [rbind] in Hlv. injection Hlv as <- <-.
    assert (HL : List.length (existing ++ rev rest_rev) = (List.length existing + List.length rest_rev)%nat)
      by (rewrite app_length, rev_length; reflexivity).
    apply at_code_app in Hcode as [Hc1 Hc2].
    assert (Hk : (ff - 1 < 3)%N) by lia.
    set (E := List.length existing) in *. set (L := (E + List.length rest_rev)%nat) in *.
    (* the loads of this value *)
    pose proof (load_value_code _ _ _ _ _ _ _ _ E1) as EC. cbv zeta in EC. rewrite HL in EC. fold L in EC.
    assert (lc1 = lc) by (destruct (bchi x); now injection EC). subst lc1.
    apply (f_equal fst) in EC. cbn [fst] in EC.
    assert (H1 : exists s1, star im i s (padd i (List.length c1)) s1 /\
                 (forall a, hword s1 a = hword s a) /\
                 (forall r, rget s1 r =
                    match bchi x with
                    | Ext => if N.eqb r (pos_reg Snd L) then Some (hword s (b + field_offset Snd (ff - 1))) else rget s r
                    | _ => if N.eqb r (pos_reg Fst L) then Some (hword s (b + field_offset Fst (ff - 1)))
                           else if N.eqb r (pos_reg Snd L) then Some (hword s (b + field_offset Snd (ff - 1))) else rget s r
                    end)).
    { pose proof (pos_reg_reserved Snd L) as HS4. pose proof (pos_reg_reserved Fst L) as HF4.
      assert (Hne : pos_reg Snd L <> pos_reg Fst E) by (intro Heq; apply pos_reg_inj in Heq as [Heq _]; discriminate).
      destruct (chi_ext_dec (bchi x)) as [Echi|Echi].
      - rewrite Echi in *. subst c1. eexists. split; [|split].
        + exec_next Hc1 0%nat step_LW; [exact Hblk | now apply field_fits12 | now apply field_valid |]. apply star_refl.
        + intros a. apply hword_rset.
        + intros r. now rewrite rget_rset_eqb.
      - rewrite (chi_match _ _ _ Echi) in EC. subst c1. eexists. split; [|split].
        + exec_next Hc1 0%nat step_LW; [exact Hblk | now apply field_fits12 | now apply field_valid |].
          exec_next Hc1 1%nat step_LW; [rewrite rget_rset_other by exact Hne; exact Hblk | now apply field_fits12 | now apply field_valid |].
          apply star_refl.
        + intros a. now rewrite !hword_rset.
        + intros r. rewrite (chi_match _ _ _ Echi), !rget_rset_eqb by assumption. now rewrite hword_rset. }
    destruct H1 as (s1 & Hs1 & Hw1 & Hr1).
    destruct rest_rev as [|y rest'].
    + (* this was the first variable: nothing follows (its first register may be the block register) *)
      cbn [load_values] in E2. injection E2 as <- <-.
      exists s1. split; [|split; [|split]].
      * rewrite app_nil_r. exact Hs1.
      * intros r. rewrite Hr1. cbn [lv_spec]. fold E. fold L.
        destruct (bchi x); repeat destruct (N.eqb r _); reflexivity.
      * exact Hw1.
      * reflexivity.
    + assert (Hblk1 : rget s1 (pos_reg Fst E) = Some b).
      { rewrite Hr1. assert (HLE : L <> E) by (unfold L; cbn [List.length]; lia).
        assert (N.eqb (pos_reg Fst E) (pos_reg Snd L) = false) as -> by (apply N.eqb_neq; intro Heq; apply pos_reg_inj in Heq as [Heq _]; discriminate).
        assert (N.eqb (pos_reg Fst E) (pos_reg Fst L) = false) as -> by (apply N.eqb_neq; intro Heq; apply pos_reg_inj in Heq as [_ Heq]; congruence).
        destruct (bchi x); exact Hblk. }
      destruct (IH existing (ff - 1)%N c2 lc lc2 (padd i (List.length c1)) s1 b E2 ltac:(cbn [List.length] in *; lia) ltac:(lia) Hc2 Hblk1 Hvb)
        as (s2 & Hs2 & Hr2 & Hw2 & ->).
      exists s2. split; [|split; [|split]].
      * rewrite app_length, padd_add. eapply star_trans; eassumption.
      * intros r. rewrite Hr2. rewrite (lv_spec_cons (hword s) x). fold L.
        apply lv_spec_ext; [exact Hw1|]. intros r'. rewrite Hr1.
        destruct (bchi x); reflexivity.
      * intros a. now rewrite Hw2.
      * reflexivity.
Qed.

Lemma padd_S : forall n i, padd i (S n) = Pos.succ (padd i n).
Proof. intros. cbn [padd]. apply padd_succ. Qed.
Lemma one_at_next : forall im j cs n c s s',
  at_code im j cs -> nth_error cs n = Some c -> (forall a, step im a c s = Next s') ->
  one im (padd j n) s (padd j (S n)) s'.
Proof.
  intros im j cs n c s s' H Hn Hs. destruct (H n c Hn) as [Hc [a Ha]]. rewrite padd_S.
  eapply one_next; eauto.
Qed.
Lemma one_at_jump : forall im j cs n c s s' t,
  at_code im j cs -> nth_error cs n = Some c -> (forall a, step im a c s = Jump s' t) ->
  one im (padd j n) s t s'.
Proof.
  intros im j cs n c s s' t H Hn Hs. destruct (H n c Hn) as [Hc [a Ha]]. eapply one_jump; eauto.
Qed.

Lemma load_fields_one_block : forall to_load existing m lc cs lc',
  to_load <> [] -> (List.length to_load <= 3)%nat ->
  load_fields (S (List.length to_load)) to_load existing Last m lc = Ok (cs, lc') ->
  exists lv,
    load_values (rev to_load) existing (pos_reg Fst (List.length existing)) 3 m lc = Ok (lv, lc') /\
    cs = (match m with Release => release_block (pos_reg Fst (List.length existing)) | Share => [] end) ++ lv.
Proof.
  intros to_load existing m lc cs lc' Hne Hlen H.
  cbn [load_fields] in H. destruct to_load as [|x r]; [contradiction|].
  change (FIELDS_PER_BLOCK - bp_n Last)%N with 3%N in H.
  assert (Hle : N.leb (N.of_nat (List.length (x :: r))) 3 = true) by (apply N.leb_le; lia).
  rewrite Hle in H. change (N.to_nat 0) with 0%nat in H. cbn [firstn skipn] in H.
  rewrite app_nil_r in H. cbn [List.length load_fields rbind] in H.
  destruct (r_fresh Fst existing) as [mb|] eqn:Emb; [|discriminate]. cbn [rbind] in H.
  apply r_fresh_ok in Emb. subst mb.
  destruct (load_values (rev (x :: r)) existing (pos_reg Fst (List.length existing)) 3 m lc) as [[lv lc3]|] eqn:Elv; [|discriminate].
  cbn [rbind] in H. injection H as <- <-. exists lv. split; [reflexivity|]. cbn [app]. reflexivity.
Qed.

Lemma r_load_one_block : forall to_load existing lc cs lc',
  to_load <> [] -> (List.length to_load <= 3)%nat ->
  r_load to_load existing lc = Ok (cs, lc') ->
  exists thenv elsev lc2,
    let mb := pos_reg Fst (List.length existing) in
    load_values (rev to_load) existing mb 3 Release lc = Ok (thenv, lc) /\
    load_values (rev to_load) existing mb 3 Share lc = Ok (elsev, lc2) /\
    cs = [LW TEMP mb 0; BEQ TEMP ZERO (lab (lc2 + 1))]
         ++ ([ADDI TEMP TEMP (-1); SW TEMP mb 0] ++ elsev)
         ++ [JAL ZERO (lab (lc2 + 2)); LAB (lab (lc2 + 1))]
         ++ (release_block mb ++ thenv)
         ++ [LAB (lab (lc2 + 2))].
Proof.
  intros to_load existing lc cs lc' Hne Hlen H. unfold r_load in H.
  destruct to_load as [|x r] eqn:Etl; [contradiction|]. rewrite <- Etl in *.
  destruct (r_fresh Fst existing) as [mb|] eqn:Emb; [|discriminate]. cbn [rbind] in H.
  apply r_fresh_ok in Emb. subst mb.
  destruct (load_fields (S (List.length to_load)) to_load existing Last Release lc) as [[thenb lc1]|] eqn:E1; [|discriminate].
  cbn [rbind] in H.
  destruct (load_fields (S (List.length to_load)) to_load existing Last Share lc1) as [[elseb lc2]|] eqn:E2; [|discriminate].
  cbn [rbind] in H.
  assert (Hne' : to_load <> []) by (rewrite Etl; discriminate).
  destruct (load_fields_one_block _ _ _ _ _ _ Hne' Hlen E1) as (thenv & Hthen & ->).
  destruct (load_fields_one_block _ _ _ _ _ _ Hne' Hlen E2) as (elsev & Helse & ->).
  assert (Hlc1 : lc1 = lc) by exact (load_values_release_lc _ _ _ _ _ _ _ Hthen).
  subst lc1. cbn [if_zero_then_else] in H. injection H as <- _.
  exists thenv, elsev, lc2. cbn zeta. split; [assumption|split; [assumption|]].
  change REFERENCE_COUNT_OFFSET with 0. cbn [app]. reflexivity.
Qed.

(* the same code as a test of the header followed by the two-branch structure *)
Lemma r_load_ite_code : forall mb thenv elsev lc2,
  [LW TEMP mb 0; BEQ TEMP ZERO (lab (lc2 + 1))] ++ ([ADDI TEMP TEMP (-1); SW TEMP mb 0] ++ elsev)
  ++ [JAL ZERO (lab (lc2 + 2)); LAB (lab (lc2 + 1))] ++ (release_block mb ++ thenv) ++ [LAB (lab (lc2 + 2))]
  = [LW TEMP mb 0] ++ fst (if_zero_then_else TEMP (release_block mb ++ thenv) ([ADDI TEMP TEMP (-1); SW TEMP mb 0] ++ elsev) lc2).
Proof. reflexivity. Qed.

Lemma lv_spec_pointwise : forall l w E b ff rg rg' r,
  rg r = rg' r -> lv_spec w l E b ff rg r = lv_spec w l E b ff rg' r.
Proof.
  induction l as [|x l IH]; intros w E b ff rg rg' r H; cbn [lv_spec]; [exact H|].
  apply IH. destruct (bchi x); repeat destruct (N.eqb r _); try reflexivity; exact H.
Qed.

(* the loads write registers of positions only *)
Lemma lv_spec_reserved : forall l w E b ff rg r, (r < 4)%N -> lv_spec w l E b ff rg r = rg r.
Proof.
  induction l as [|x l IH]; intros w E b ff rg r Hr; [reflexivity|]. rewrite lv_spec_cons, IH by exact Hr.
  assert (Hn : forall n p, N.eqb r (pos_reg n p) = false)
    by (intros n p; apply N.eqb_neq; pose proof (pos_reg_reserved n p); lia).
  destruct (bchi x); now rewrite ?Hn.
Qed.

(* `switch`/`invoke` loading 1..3 values from a block nobody else refers to (header 0): the block
   goes onto the linear free list and the fields are loaded into the registers of the positions
   after the existing context; TEMP and HEAP are the only other registers written *)
Theorem rv_load_one_block_release_refines : forall im i to_load existing lc cs lc' s h b,
  to_load <> [] -> (List.length to_load <= 3)%nat ->
  r_load to_load existing lc = Ok (cs, lc') ->
  placed im i cs ->
  represents s h ->
  rget s (pos_reg Fst (List.length existing)) = Some b -> valid_block b ->
  words h b = 0 ->
  exists s',
    star im i s (padd i (List.length cs)) s' /\
    represents s' (a_release b h) /\
    (forall r, r <> TEMP -> r <> HEAP ->
       rget s' r = lv_spec (words (a_release b h)) (rev to_load) (List.length existing) b 3 (rget s) r).
Proof.
  intros im i to_load existing lc cs lc' s h b Hne Hlen Hld Hpl Hrep Hmb Hvb Hrc.
  destruct (r_load_one_block _ _ _ _ _ Hne Hlen Hld) as (thenv & elsev & lc2 & Hthen & Helse & ->).
  set (mb := pos_reg Fst (List.length existing)) in *.
  destruct (pos_reg_regs Fst (List.length existing)) as (Hm0 & HmT & HmH & _). fold mb in Hm0, HmT, HmH.
  assert (Hb : valid_addr b) by (replace b with (b + 8 * 0) by lia; apply Hvb; lia).
  rewrite r_load_ite_code in *. rewrite app_length, padd_add. cbn [List.length].
  apply placed_app in Hpl as [[CL _] Pite]. cbn [List.length] in Pite.
  destruct (ite_placed _ _ _ _ _ _ Pite) as [_ Pth]. apply placed_app in Pth as [PR [CV _]].
  (* the header is 0: to the release path, which pushes the block onto the linear free list *)
  set (s1 := rset s TEMP (Some (hword s b))).
  assert (Hrep1 : represents s1 h).
  { apply represents_rset; [exact Hrep|discriminate..]. }
  assert (Hmb1 : rget s1 mb = Some b) by (unfold s1; rewrite rget_rset_other by congruence; exact Hmb).
  destruct (rv_release_block_refines im _ mb s1 h b PR Hm0 HmH Hrep1 Hmb1 Hb) as (s5 & Hs5 & Hrep5 & Hfr5).
  assert (Hmb5 : rget s5 mb = Some b) by (now rewrite Hfr5).
  destruct (rv_load_values_release im (rev to_load) existing 3 thenv lc lc _ s5 b Hthen
              ltac:(rewrite rev_length; lia) ltac:(lia) CV Hmb5 Hvb) as (s6 & Hs6 & Hr6 & Hw6 & _).
  exists s6. split; [|split].
  - exec_next CL 0%nat step_LW0; [exact Hmb | exact Hb |].
    apply (ite_zero im _ TEMP _ _ _ s1 _ Pite); [unfold s1; regs; now rewrite (proj1 Hrep), Hrc|].
    rewrite app_length, padd_add. eapply star_trans; [exact Hs5|]. exact Hs6.
  - destruct Hrep5 as (Hw5 & Hhp5 & Hfp5). split; [|split].
    + intros a. rewrite Hw6. apply Hw5.
    + rewrite Hr6, lv_spec_reserved by (vm_compute; reflexivity). exact Hhp5.
    + rewrite Hr6, lv_spec_reserved by (vm_compute; reflexivity). exact Hfp5.
  - intros r H1 H2. rewrite Hr6. destruct Hrep5 as (Hw5 & _).
    erewrite lv_spec_ext; [|exact Hw5|reflexivity]. apply lv_spec_pointwise.
    rewrite Hfr5 by exact H2. unfold s1. apply rget_rset_other. congruence.
Qed.

Definition rupd (rg : N -> option Z) (t : N) (v : Z) : N -> option Z := fun r => if N.eqb r t then Some v else rg r.

Fixpoint lvs_spec (to_load_rev : list binding) (E : nat) (b : Z) (ff : N) (rg : N -> option Z) (h : aheap)
  : (N -> option Z) * aheap :=
  match to_load_rev with
  | [] => (rg, h)
  | x :: rest_rev =>
      let L := (E + List.length rest_rev)%nat in
      let vS := words h (b + field_offset Snd (ff - 1)) in
      match bchi x with
      | Ext => lvs_spec rest_rev E b (ff - 1) (rupd rg (pos_reg Snd L) vS) h
      | _ => let vF := words h (b + field_offset Fst (ff - 1)) in
             lvs_spec rest_rev E b (ff - 1) (rupd (rupd rg (pos_reg Snd L) vS) (pos_reg Fst L) vF) (a_share vF 1 h)
      end
  end.
Fixpoint lvs_ok (to_load_rev : list binding) (b : Z) (ff : N) (h : aheap) : Prop :=
  match to_load_rev with
  | [] => True
  | x :: rest_rev =>
      match bchi x with
      | Ext => lvs_ok rest_rev b (ff - 1) h
      | _ => let vF := words h (b + field_offset Fst (ff - 1)) in
             (vF = 0 \/ valid_addr vF) /\ lvs_ok rest_rev b (ff - 1) (a_share vF 1 h)
      end
  end.

Lemma lvs_spec_pointwise : forall l E b ff rg rg' h r,
  rg r = rg' r -> fst (lvs_spec l E b ff rg h) r = fst (lvs_spec l E b ff rg' h) r.
Proof.
  induction l as [|x l IH]; intros E b ff rg rg' h r H; cbn [lvs_spec]; [exact H|].
  destruct (bchi x); apply IH; unfold rupd; repeat destruct (N.eqb r _); try reflexivity; exact H.
Qed.
Lemma lvs_spec_heap_indep : forall l E b ff rg rg' h, snd (lvs_spec l E b ff rg h) = snd (lvs_spec l E b ff rg' h).
Proof. induction l as [|x l IH]; intros; cbn [lvs_spec]; [reflexivity|]. destruct (bchi x); apply IH. Qed.
Lemma hp_a_share : forall p n h, hp (a_share p n h) = hp h.
Proof. intros. unfold a_share. destruct (p =? 0); reflexivity. Qed.
Lemma fp_a_share : forall p n h, fp (a_share p n h) = fp h.
Proof. intros. unfold a_share. destruct (p =? 0); reflexivity. Qed.

Theorem rv_load_values_share : forall im to_load_rev existing ff cs lc lc' i s h b,
  load_values to_load_rev existing (pos_reg Fst (List.length existing)) ff Share lc = Ok (cs, lc') ->
  (N.of_nat (List.length to_load_rev) <= ff)%N -> (ff <= 3)%N ->
  placed im i cs ->
  represents s h ->
  rget s (pos_reg Fst (List.length existing)) = Some b -> valid_block b ->
  lvs_ok to_load_rev b ff h ->
  exists s',
    star im i s (padd i (List.length cs)) s' /\
    represents s' (snd (lvs_spec to_load_rev (List.length existing) b ff (rget s) h)) /\
    (forall r, r <> TEMP -> rget s' r = fst (lvs_spec to_load_rev (List.length existing) b ff (rget s) h) r).
Proof.
  intros im to_load_rev. induction to_load_rev as [|x rest_rev IH]; intros existing ff cs lc lc' i s h b Hlv Hlen Hff Hpl Hrep Hblk Hvb Hok.
  - cbn [load_values] in Hlv. injection Hlv as <- <-. exists s. cbn. repeat split; try apply Hrep; auto. apply star_refl.
  - cbn [load_values] in Hlv. cbn [List.length] in Hlen.
    destruct (load_value x (existing ++ rev rest_rev) (pos_reg Fst (List.length existing)) (ff - 1) Share lc) as [[c1 lc1]|] eqn:E1; [|discriminate].
    cbn [rbind] in Hlv.
    destruct (load_values rest_rev existing (pos_reg Fst (List.length existing)) (ff - 1) Share lc1) as [[c2 lc2]|] eqn:E2; [|discriminate].
    cbn [rbind] in Hlv. injection Hlv as <- <-.
    assert (HL : List.length (existing ++ rev rest_rev) = (List.length existing + List.length rest_rev)%nat)
      by (rewrite app_length, rev_length; reflexivity).
    apply placed_app in Hpl as [Hp1 Hp2].
    assert (Hk : (ff - 1 < 3)%N) by lia.
    set (E := List.length existing) in *. set (Lp := (E + List.length rest_rev)%nat) in *.
    pose proof (pos_reg_reserved Snd Lp) as HS4. pose proof (pos_reg_reserved Fst Lp) as HF4.
    destruct (pos_reg_regs Snd Lp) as (_ & _ & HS2 & HS3). destruct (pos_reg_regs Fst Lp) as (HF0 & HF1 & HF2 & HF3).
    assert (HneSB : pos_reg Snd Lp <> pos_reg Fst E) by (intro Heq; apply pos_reg_inj in Heq as [Heq _]; discriminate).
    destruct Hrep as (Hw & Hhp & Hfp).
    (* this value *)
    assert (H1 : exists s1 h1 rg1,
                 star im i s (padd i (List.length c1)) s1 /\ represents s1 h1 /\
                 (forall r, r <> TEMP -> rget s1 r = rg1 r) /\
                 lvs_spec (x :: rest_rev) E b ff (rget s) h = lvs_spec rest_rev E b (ff - 1) rg1 h1 /\
                 lvs_ok rest_rev b (ff - 1) h1 /\
                 (rest_rev <> [] -> rg1 (pos_reg Fst E) = Some b)).
    { apply load_value_code in E1. cbv zeta in E1. rewrite HL in E1. fold Lp in E1.
      apply (f_equal fst) in E1. cbn [fst] in E1.
      cbn [lvs_spec lvs_ok] in *. fold Lp.
      destruct (chi_ext_dec (bchi x)) as [Echi|Echi].
      - rewrite Echi in *. cbn [fst] in E1. subst c1. destruct Hp1 as [Hc1 _].
        exists (rset s (pos_reg Snd Lp) (Some (hword s (b + field_offset Snd (ff - 1))))), h,
               (rupd (rget s) (pos_reg Snd Lp) (words h (b + field_offset Snd (ff - 1)))).
        split; [|split; [|split; [|split; [|split]]]].
        + exec_next Hc1 0%nat step_LW; [exact Hblk | now apply field_fits12 | now apply field_valid |]. apply star_refl.
        + apply represents_rset; [now split|assumption..].
        + intros r _. unfold rupd. rewrite rget_rset_eqb by assumption. now rewrite Hw.
        + reflexivity.
        + exact Hok.
        + intros _. unfold rupd. destruct (N.eqb_spec (pos_reg Fst E) (pos_reg Snd Lp)); [congruence|exact Hblk].
      - rewrite (chi_match _ _ _ Echi) in E1. rewrite (chi_match _ _ _ Echi) in Hok. rewrite (chi_match _ _ _ Echi).
        cbn [fst] in E1. subst c1.
        destruct Hok as [Hcv Hok'].
        apply (placed_app im i [_; _]) in Hp1 as [[Hc1 _] Hp3]. cbn [List.length] in Hp3.
        set (s1 := rset (rset s (pos_reg Snd Lp) (Some (hword s (b + field_offset Snd (ff - 1))))) (pos_reg Fst Lp)
                     (Some (hword (rset s (pos_reg Snd Lp) (Some (hword s (b + field_offset Snd (ff - 1))))) (b + field_offset Fst (ff - 1))))).
        assert (Hrep1 : represents s1 h) by (do 2 (apply represents_rset; [|assumption..]); now split).
        assert (HtF : rget s1 (pos_reg Fst Lp) = Some (words h (b + field_offset Fst (ff - 1))))
          by (unfold s1; rewrite rget_rset_same by lia; now rewrite hword_rset, Hw).
        destruct (rv_share_block_n_refines im (padd i 2) (pos_reg Fst Lp) 1 lc s1 h (words h (b + field_offset Fst (ff - 1))) Hp3
                    HF0 HF1 HF2 HF3 Hrep1 HtF Hcv eq_refl) as (s2 & Hs2 & Hrep2 & Hfr2).
        exists s2, (a_share (words h (b + field_offset Fst (ff - 1))) 1 h),
               (rupd (rupd (rget s) (pos_reg Snd Lp) (words h (b + field_offset Snd (ff - 1)))) (pos_reg Fst Lp) (words h (b + field_offset Fst (ff - 1)))).
        split; [|split; [|split; [|split; [|split]]]].
        + exec_next Hc1 0%nat step_LW; [exact Hblk | now apply field_fits12 | now apply field_valid |].
          exec_next Hc1 1%nat step_LW; [rewrite rget_rset_other by exact HneSB; exact Hblk | now apply field_fits12 | now apply field_valid |].
          cbn [List.length app padd]. exact Hs2.
        + exact Hrep2.
        + intros r Hr. rewrite Hfr2 by exact Hr. unfold s1, rupd. rewrite !rget_rset_eqb by assumption. rewrite hword_rset, !Hw. reflexivity.
        + reflexivity.
        + exact Hok'.
        + intros Hrest. unfold rupd.
          assert (HLE : Lp <> E) by (unfold Lp; destruct rest_rev; [contradiction|cbn [List.length]; lia]).
          destruct (N.eqb_spec (pos_reg Fst E) (pos_reg Fst Lp)) as [Heq|_]; [apply pos_reg_inj in Heq as [_ Heq]; congruence|].
          destruct (N.eqb_spec (pos_reg Fst E) (pos_reg Snd Lp)) as [Heq|_]; [congruence|exact Hblk]. }
    destruct H1 as (s1 & h1 & rg1 & Hs1 & Hrep1 & Hr1 & Hspec & Hok1 & Hb1).
    rewrite Hspec.
    destruct rest_rev as [|y rest'].
    + cbn [load_values] in E2. injection E2 as <- <-. cbn [lvs_spec].
      exists s1. split; [|split].
      * rewrite app_nil_r. exact Hs1.
      * exact Hrep1.
      * exact Hr1.
    + assert (Hblk1 : rget s1 (pos_reg Fst E) = Some b).
      { rewrite Hr1; [apply Hb1; discriminate|]. apply pos_reg_regs. }
      destruct (IH existing (ff - 1)%N c2 lc1 lc2 (padd i (List.length c1)) s1 h1 b E2 ltac:(cbn [List.length] in *; lia) ltac:(lia) Hp2 Hrep1 Hblk1 Hvb Hok1)
        as (s2 & Hs2 & Hrep2 & Hr2).
      exists s2. split; [|split].
      * rewrite app_length, padd_add. eapply star_trans; eassumption.
      * rewrite (lvs_spec_heap_indep _ _ _ _ rg1 (rget s1)). exact Hrep2.
      * intros r Hr. rewrite Hr2 by exact Hr. apply lvs_spec_pointwise. now apply Hr1.
Qed.

(* `switch`/`invoke` loading 1..3 values from a block that has other references (header <> 0):
   the header is decremented, the fields are loaded and every loaded pointer gains a reference *)
Theorem rv_load_one_block_share_refines : forall im i to_load existing lc cs lc' s h b,
  to_load <> [] -> (List.length to_load <= 3)%nat ->
  r_load to_load existing lc = Ok (cs, lc') ->
  placed im i cs ->
  represents s h ->
  rget s (pos_reg Fst (List.length existing)) = Some b -> valid_block b ->
  words h b <> 0 ->
  let h' := {| words := upd (words h) b (wrap (words h b - 1)); hp := hp h; fp := fp h |} in
  lvs_ok (rev to_load) b 3 h' ->
  exists s',
    star im i s (padd i (List.length cs)) s' /\
    represents s' (snd (lvs_spec (rev to_load) (List.length existing) b 3 (rget s) h')) /\
    (forall r, r <> TEMP -> rget s' r = fst (lvs_spec (rev to_load) (List.length existing) b 3 (rget s) h') r).
Proof.
  intros im i to_load existing lc cs lc' s h b Hne Hlen Hld Hpl (Hw & Hhp & Hfp) Hmb Hvb Hrc h' Hok.
  destruct (r_load_one_block _ _ _ _ _ Hne Hlen Hld) as (thenv & elsev & lc2 & Hthen & Helse & ->).
  set (mb := pos_reg Fst (List.length existing)) in *.
  destruct (pos_reg_regs Fst (List.length existing)) as (_ & HmT & HmH & HmF). fold mb in HmT, HmH, HmF.
  assert (Hb : valid_addr b) by (replace b with (b + 8 * 0) by lia; apply Hvb; lia).
  assert (Hbpos : 0 < b) by now apply valid_pos.
  rewrite r_load_ite_code in *. rewrite app_length, padd_add. cbn [List.length].
  apply placed_app in Hpl as [[CL _] Pite]. cbn [List.length] in Pite.
  destruct (ite_placed _ _ _ _ _ _ Pite) as [Pel _]. apply placed_app in Pel as [[CD _] Hpe].
  (* the test, and the header decrement *)
  set (s1 := rset s TEMP (Some (hword s b))).
  assert (H4 : exists s4, star im (padd (padd i 1) 1) s1 (padd (padd (padd i 1) 1) 2) s4 /\ represents s4 h' /\
                          (forall r, r <> TEMP -> rget s4 r = rget s r)).
  { eexists. split; [|split].
    - exec_next CD 0%nat step_ADDI; [unfold s1; regs; reflexivity | reflexivity |].
      exec_next CD 1%nat step_SW0; [unfold s1; regs; exact Hmb | regs; reflexivity | exact Hb |].
      apply star_refl.
    - unfold h', s1. rewrite Hw. apply represents_sstore; [|assumption].
      do 2 (apply represents_rset; [|discriminate..]). now split.
    - intros r Hr. unfold s1. regs. reflexivity. }
  destruct H4 as (s4 & Hs4 & Hrep4 & Hfr4).
  assert (Hmb4 : rget s4 mb = Some b) by (rewrite Hfr4 by congruence; exact Hmb).
  destruct (rv_load_values_share im (rev to_load) existing 3 elsev lc lc2 _ s4 h' b Helse
              ltac:(rewrite rev_length; lia) ltac:(lia) Hpe Hrep4 Hmb4 Hvb Hok) as (s5 & Hs5 & Hrep5 & Hr5).
  exists s5. split; [|split].
  - exec_next CL 0%nat step_LW0; [exact Hmb | exact Hb |].
    apply (ite_nonzero im _ TEMP _ _ _ s1 _ (words h b) Pite); [unfold s1; regs; now rewrite Hw | exact Hrc |].
    rewrite app_length, padd_add. eapply star_trans; [exact Hs4|]. exact Hs5.
  - rewrite (lvs_spec_heap_indep _ _ _ _ (rget s) (rget s4)). exact Hrep5.
  - intros r Hr. rewrite Hr5 by exact Hr. apply lvs_spec_pointwise. now apply Hfr4.
Qed.
