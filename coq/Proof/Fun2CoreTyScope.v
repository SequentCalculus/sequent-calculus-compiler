(* Proof/Fun2CoreTyScope  -  two consequences of the typing guard [tg] used at the level of definitions:
   - [tg_fv_scope]: every free name of a guarded term is bound in the scope;
   - [tg_bnd_used]: every binder of a guarded term is in fun2core's `used_binders` (the clause
     parameters are recorded by their `context_names`, which the guard compares with the context).
   So a name that is fresh for `used_binders body (parameters)` is neither free nor bound in the body. *)
From Coq Require Import List ZArith NArith String Bool Lia.
From SCC Require Import Proof.CoreInd.
From SCC Require Import Base.Sexp Lang.SynUtil Lang.FunSyn Lang.FunTy Lang.CoreSyn.
From SCC Require Import Sem.AxSem Sem.FunSem Sem.FsCheck Sem.CoreCheck Model.Fun2Core Model.Fun2CoreGuard Model.Fun2CoreTyGuard.
From SCC Require Import Proof.Fun2CoreProof Proof.Fun2CoreTfv Proof.Fun2CoreInv Proof.Fun2CoreProg Proof.CoreTyRules
     Proof.Fun2CoreTyBase.
Import ListNotations.
Open Scope string_scope.
Open Scope list_scope.

Arguments var_ok : simpl never.

Section Scope.
  Variable p : fcprog.
  Variables data codata : list ctydecl.
  Notation tg := (tg p data codata).
  Notation tg_arg := (tg_arg p data codata).
  Notation tg_args := (tg_args p data codata).
  Notation tg_clause := (tg_clause p data codata).
  Notation tg_clauses := (tg_clauses p data codata).
  Notation tg_coclause := (tg_coclause p data codata).
  Notation tg_coclauses := (tg_coclauses p data codata).

  Definition bound_in (G : cctx) (x : string) : Prop := clookup G (new_id x) <> None.
  (* the statements of [tg_fv_scope] and [tg_bnd_used], as induction predicates *)
  Definition SC (t : fterm) : Prop := forall G, tg G t = true -> forall x, In x (fv_fterm t) -> bound_in G x.

  Lemma bound_cons_inv : forall b v G x, cbvar b = new_id v -> bound_in (b :: G) x -> x <> v -> bound_in G x.
  Proof.
    intros b v G x Hb H Hne. unfold bound_in in *. rewrite clookup_cons, Hb in H.
    assert (E : cident_eqb (new_id v) (new_id x) = false).
    { apply cident_eqb_neq. intros E. apply new_id_inj in E. congruence. }
    rewrite E in H. exact H.
  Qed.
  Lemma bound_app_inv : forall ctx G x, bound_in (compile_ctx ctx ++ G) x -> ~ In x (fvars ctx) -> bound_in G x.
  Proof.
    intros ctx G x H Hn. unfold bound_in in *. rewrite clookup_app in H.
    destruct (clookup (compile_ctx ctx) (new_id x)) as [b|] eqn:E; [|exact H].
    exfalso. pose proof (clookup_var _ _ _ E) as Hv. apply clookup_In in E.
    unfold compile_ctx in E. apply in_map_iff in E. destruct E as [fb [Eb Hfb]]. subst b.
    unfold compile_binding in Hv. cbn [cbvar] in Hv. apply new_id_inj in Hv. apply Hn. subst x. apply in_map. exact Hfb.
  Qed.

  Lemma sc_args : forall args, Forall SC args -> forall G sig, tg_args G args sig = true ->
    forall x, In x (flat_map fv_fterm args) -> bound_in G x.
  Proof.
    intros args H G. induction H as [|y r Hy Hr IH]; intros sig Hg x Hx; [contradiction|].
    destruct sig as [|b sr]; [discriminate|]. rewrite tg_args_cons in Hg. apply andb_prop in Hg. destruct Hg as [Hg1 Hg2].
    simpl in Hx. apply in_app_or in Hx. destruct Hx as [Hx|Hx]; [|eapply IH; eassumption].
    unfold Fun2CoreTyGuard.tg_arg in Hg1. destruct (cbchi b).
    - apply andb_prop in Hg1 as [[[_ Hg1]%andb_prop _]%andb_prop _]. exact (Hy G Hg1 x Hx).
    - destruct y; try discriminate. destruct chi as [[|]|]; try discriminate.
      apply andb_prop in Hg1 as [[Hv _]%andb_prop _].
      apply var_ok_look in Hv. destruct Hv as [ty0 [_ Hv]]. simpl in Hx. destruct Hx as [<-|[]].
      unfold bound_in. rewrite Hv. discriminate.
  Qed.
  Lemma sc_clauses : forall cls, Forall (fun c => SC (clause_body c)) cls -> forall G, Forall (clause_guarded p data codata G) cls ->
    forall x, In x (flat_map fv_cl cls) -> bound_in G x.
  Proof.
    intros cls H G Hg x Hx. apply in_flat_map in Hx. destruct Hx as [[pl x0 names ctx body] [Hin Hx]].
    rewrite Forall_forall in H, Hg. specialize (H _ Hin). destruct (Hg _ Hin) as [_ Hgb].
    unfold fv_cl in Hx. apply remove_all_In in Hx. destruct Hx as [Hx Hn]. simpl in H.
    eapply bound_app_inv; [exact (H _ Hgb x Hx) | exact Hn].
  Qed.

  Theorem tg_fv_scope : forall t, SC t.
  Proof.
    induction t using fterm_ind'; intros G Hg z Hz.
    - rewrite tg_var in Hg. pose proof Hg as Hv. apply var_ok_look in Hv.
      destruct Hv as [ty0 [_ Hv]]. simpl in Hz. destruct Hz as [<-|[]]. unfold bound_in. rewrite Hv. discriminate.
    - contradiction.
    - rewrite tg_op in Hg. apply andb_prop in Hg as [[[H1 H2]%andb_prop _]%andb_prop _]. simpl in Hz. apply in_app_or in Hz.
      destruct Hz as [Hz|Hz]; [eapply IHt1 | eapply IHt2]; eassumption.
    - rewrite tg_ifc in Hg.
      apply andb_prop in Hg as [[[[[[Hg1 _]%andb_prop Hgb]%andb_prop Hg2]%andb_prop Hg3]%andb_prop _]%andb_prop _].
      simpl in Hz. apply in_app_or in Hz. destruct Hz as [Hz|Hz]; [eapply IHt1; eassumption|].
      apply in_app_or in Hz. destruct Hz as [Hz|Hz].
      { destruct b as [b'|]; [|contradiction]. apply andb_prop in Hgb. destruct Hgb as [Hgb _]. simpl in H. eapply H; eassumption. }
      apply in_app_or in Hz. destruct Hz as [Hz|Hz]; [eapply IHt2 | eapply IHt3]; eassumption.
    - rewrite tg_print in Hg. apply andb_prop in Hg as [[[H1 _]%andb_prop H2]%andb_prop _]. simpl in Hz. apply in_app_or in Hz.
      destruct Hz as [Hz|Hz]; [eapply IHt1 | eapply IHt2]; eassumption.
    - rewrite tg_let in Hg. apply andb_prop in Hg as [[[[H1 _]%andb_prop _]%andb_prop H2]%andb_prop _].
      simpl in Hz. apply in_app_or in Hz. destruct Hz as [Hz|Hz]; [eapply IHt1; eassumption|].
      apply remove_all_In in Hz. destruct Hz as [Hz Hn].
      apply (bound_cons_inv (mkcb (new_id v) CPrd (compile_ty vty)) v G z eq_refl (IHt2 _ H2 z Hz)). intros ->. apply Hn. left. reflexivity.
    - rewrite tg_call in Hg. apply andb_prop in Hg. destruct Hg as [_ Hg].
      destruct (ffind_def p f) as [d|]; [|discriminate]. destruct ret as [r|]; [|discriminate].
      apply andb_prop in Hg as [[Hg _]%andb_prop _].
      rewrite fv_call in Hz. eapply sc_args; eassumption.
    - rewrite tg_ctor in Hg. destruct (tyo (FCtor x args ty)) as [[|n]|]; try discriminate.
      destruct (find_decl data n) as [d|]; [|discriminate]. destruct (find_cxtor d (new_id x)) as [sg|]; [|discriminate].
      rewrite fv_ctor in Hz. eapply sc_args; eassumption.
    - rewrite tg_dtor in Hg. apply andb_prop in Hg. destruct Hg as [Hgs Hg].
      rewrite fv_dtor in Hz. apply in_app_or in Hz. destruct Hz as [Hz|Hz]; [eapply IHt; eassumption|].
      destruct (tyo t) as [[|n]|]; try discriminate.
      destruct (find_decl codata n) as [d|]; [|discriminate]. destruct (find_cxtor d (new_id x)) as [sg|]; [|discriminate].
      destruct (split_last (cxargs sg)) as [[pre last]|]; [|discriminate].
      apply andb_prop in Hg as [[Hg _]%andb_prop _].
      eapply sc_args; eassumption.
    - rewrite tg_case in Hg. apply andb_prop in Hg. destruct Hg as [Hgs Hg].
      rewrite fv_case in Hz. apply in_app_or in Hz. destruct Hz as [Hz|Hz]; [eapply IHt; eassumption|].
      destruct (tyo t) as [[|n]|]; try discriminate. destruct (find_decl data n) as [d|]; [|discriminate].
      eapply sc_clauses; [eassumption | eapply tg_clauses_guarded; eassumption | exact Hz].
    - rewrite tg_new in Hg. destruct (tyo (FNew cls ty)) as [[|n]|]; try discriminate.
      destruct (find_decl codata n) as [d|]; [|discriminate]. rewrite fv_new in Hz.
      eapply sc_clauses; [eassumption | eapply tg_coclauses_guarded; eassumption | exact Hz].
    - rewrite tg_label in Hg. destruct ty as [ty0|]; [|discriminate].
      apply andb_prop in Hg as [[_ Hg]%andb_prop _].
      simpl in Hz. apply remove_all_In in Hz. destruct Hz as [Hz Hn].
      apply (bound_cons_inv (mkcb (new_id l) CCns (compile_ty ty0)) l G z eq_refl (IHt _ Hg z Hz)). intros ->. apply Hn. left. reflexivity.
    - rewrite tg_goto in Hg. apply andb_prop in Hg as [[Hv _]%andb_prop Hgt].
      simpl in Hz. destruct Hz as [<-|Hz]; [|eapply IHt; eassumption].
      apply var_ok_look in Hv. destruct Hv as [ty0 [_ Hv]]. unfold bound_in. rewrite Hv. discriminate.
    - rewrite tg_exit in Hg. apply andb_prop in Hg as [[Hg _]%andb_prop _].
      eapply IHt; eassumption.
    - rewrite tg_paren in Hg. eapply IHt; eassumption.
  Qed.

  Definition BU (t : fterm) : Prop := forall G acc, tg G t = true -> forall x, In x (bnd t) -> In x (used_binders t acc).

  Lemma bu_args : forall args, Forall BU args -> forall G sig, tg_args G args sig = true ->
    forall acc x, In x (flat_map bnd args) -> In x (ub_terms args acc).
  Proof.
    intros args H G. induction H as [|y r Hy Hr IH]; intros sig Hg acc x Hx; [contradiction|].
    destruct sig as [|b sr]; [discriminate|]. rewrite tg_args_cons in Hg. apply andb_prop in Hg. destruct Hg as [Hg1 Hg2].
    unfold ub_terms. simpl. fold (ub_terms r (used_binders y acc)).
    simpl in Hx. apply in_app_or in Hx. destruct Hx as [Hx|Hx]; [|eapply IH; eassumption].
    apply ub_terms_mono. unfold Fun2CoreTyGuard.tg_arg in Hg1. destruct (cbchi b).
    - apply andb_prop in Hg1 as [[[_ Hg1]%andb_prop _]%andb_prop _]. exact (Hy G acc Hg1 x Hx).
    - destruct y; try discriminate. simpl in Hx. contradiction.
  Qed.
  Lemma bu_clause_head : forall names ctx body acc x, list_eqb String.eqb names (fvars ctx) = true ->
    In x (fvars ctx) -> In x (used_binders body (rev_append names acc)).
  Proof.
    intros names ctx body acc x Hn Hx. apply str_list_eqb_eq in Hn. subst names.
    apply used_binders_mono. rewrite rev_append_rev. apply in_or_app. left. apply in_rev in Hx. exact Hx.
  Qed.
  Lemma bu_clauses : forall cls, Forall (fun c => BU (clause_body c)) cls -> forall G, Forall (clause_guarded p data codata G) cls ->
    forall acc x, In x (flat_map cl_bnd cls) -> In x (ub_cls cls acc).
  Proof.
    intros cls H G Hg. induction H as [|c r Hc Hr IH]; intros acc x Hx; [contradiction|].
    destruct c as [pl x0 names ctx body]. inversion Hg as [|? ? Hg1 Hgr]; subst. destruct Hg1 as [Hnames Hgb]. unfold ub_cls. simpl.
    fold (ub_cls r (used_binders body (rev_append names acc))).
    simpl in Hx. apply in_app_or in Hx. destruct Hx as [Hx|Hx]; [|exact (IH Hgr _ x Hx)].
    apply ub_cls_mono.
    apply in_app_or in Hx. destruct Hx as [Hx|Hx]; [apply (bu_clause_head names ctx); assumption|].
    simpl in Hc. exact (Hc _ _ Hgb x Hx).
  Qed.

  Theorem tg_bnd_used : forall t, BU t.
  Proof.
    induction t using fterm_ind'; intros G acc Hg z Hz; try (simpl in Hz; contradiction).
    - rewrite tg_op in Hg. apply andb_prop in Hg as [[[H1 H2]%andb_prop _]%andb_prop _]. simpl in Hz. simpl. apply in_app_or in Hz. destruct Hz as [Hz|Hz].
      + apply used_binders_mono. eapply IHt1; eassumption.
      + eapply IHt2; eassumption.
    - rewrite tg_ifc in Hg.
      apply andb_prop in Hg as [[[[[[Hg1 _]%andb_prop Hgb]%andb_prop Hg2]%andb_prop Hg3]%andb_prop _]%andb_prop _].
      simpl in Hz. simpl. apply in_app_or in Hz. destruct Hz as [Hz|Hz].
      { apply used_binders_mono. apply used_binders_mono. destruct b as [b'|]; [apply used_binders_mono|]; eapply IHt1; eassumption. }
      apply in_app_or in Hz. destruct Hz as [Hz|Hz].
      { apply used_binders_mono. apply used_binders_mono. destruct b as [b'|]; [|contradiction].
        apply andb_prop in Hgb. destruct Hgb as [Hgb _]. simpl in H. eapply H; eassumption. }
      apply in_app_or in Hz. destruct Hz as [Hz|Hz].
      { apply used_binders_mono. eapply IHt2; eassumption. }
      eapply IHt3; eassumption.
    - rewrite tg_print in Hg. apply andb_prop in Hg as [[[H1 _]%andb_prop H2]%andb_prop _]. simpl in Hz. simpl. apply in_app_or in Hz. destruct Hz as [Hz|Hz].
      + apply used_binders_mono. eapply IHt1; eassumption.
      + eapply IHt2; eassumption.
    - rewrite tg_let in Hg. apply andb_prop in Hg as [[[[H1 _]%andb_prop _]%andb_prop H2]%andb_prop _].
      simpl in Hz. simpl. destruct Hz as [Hz|Hz].
      + subst z. apply used_binders_mono. apply used_binders_mono. left. reflexivity.
      + apply in_app_or in Hz. destruct Hz as [Hz|Hz].
        * apply used_binders_mono. eapply IHt1; eassumption.
        * eapply IHt2; eassumption.
    - rewrite tg_call in Hg. apply andb_prop in Hg. destruct Hg as [_ Hg].
      destruct (ffind_def p f) as [d|]; [|discriminate]. destruct ret as [r|]; [|discriminate].
      apply andb_prop in Hg as [[Hg _]%andb_prop _].
      simpl in Hz. rewrite used_binders_call. eapply bu_args; eassumption.
    - rewrite tg_ctor in Hg. destruct (tyo (FCtor x args ty)) as [[|n]|]; try discriminate.
      destruct (find_decl data n) as [d|]; [|discriminate]. destruct (find_cxtor d (new_id x)) as [sg|]; [|discriminate].
      simpl in Hz. rewrite used_binders_ctor. eapply bu_args; eassumption.
    - rewrite tg_dtor in Hg. apply andb_prop in Hg. destruct Hg as [Hgs Hg].
      simpl in Hz. rewrite used_binders_dtor. apply in_app_or in Hz. destruct Hz as [Hz|Hz].
      { apply ub_terms_mono. eapply IHt; eassumption. }
      destruct (tyo t) as [[|n]|]; try discriminate.
      destruct (find_decl codata n) as [d|]; [|discriminate]. destruct (find_cxtor d (new_id x)) as [sg|]; [|discriminate].
      destruct (split_last (cxargs sg)) as [[pre last]|]; [|discriminate].
      apply andb_prop in Hg as [[Hg _]%andb_prop _].
      eapply bu_args; eassumption.
    - rewrite tg_case in Hg. apply andb_prop in Hg. destruct Hg as [Hgs Hg].
      simpl in Hz. fold (flat_map cl_bnd cls) in Hz. rewrite used_binders_case. apply in_app_or in Hz. destruct Hz as [Hz|Hz].
      { apply ub_cls_mono. eapply IHt; eassumption. }
      destruct (tyo t) as [[|n]|]; try discriminate. destruct (find_decl data n) as [d|]; [|discriminate].
      eapply bu_clauses; [eassumption | eapply tg_clauses_guarded; eassumption | exact Hz].
    - rewrite tg_new in Hg. destruct (tyo (FNew cls ty)) as [[|n]|]; try discriminate.
      destruct (find_decl codata n) as [d|]; [|discriminate].
      simpl in Hz. fold (flat_map cl_bnd cls) in Hz. rewrite used_binders_new.
      eapply bu_clauses; [eassumption | eapply tg_coclauses_guarded; eassumption | exact Hz].
    - rewrite tg_label in Hg. destruct ty as [ty0|]; [|discriminate].
      apply andb_prop in Hg as [[_ Hg]%andb_prop _].
      simpl in Hz. simpl. destruct Hz as [Hz|Hz].
      + subst z. apply used_binders_mono. left. reflexivity.
      + eapply IHt; eassumption.
    - rewrite tg_goto in Hg. apply andb_prop in Hg. destruct Hg as [_ Hgt]. simpl in Hz. simpl. eapply IHt; eassumption.
    - rewrite tg_exit in Hg. apply andb_prop in Hg as [[Hg _]%andb_prop _].
      simpl in Hz. simpl. eapply IHt; eassumption.
    - rewrite tg_paren in Hg. simpl in Hz. simpl. eapply IHt; eassumption.
  Qed.
End Scope.
