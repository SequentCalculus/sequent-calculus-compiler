(* C14: the two-weight instruction bound of Proof/SizeCodegenFine.v discharged for the AArch64 back end: 14 instructions per
   simple unit (the largest single operation is erase_block; print <= 11 + 4 * context <= 14 * (1 + context); parallel
   moves <= 8 * new + 4 * old), 74 = 29 + 15 * FIELDS_PER_BLOCK per unit of a memory operation (Proof/SizeA64.v).
   [a64_compile_fine_size]: the routine has at most 28 + cg_fine_defs 14 74 instructions (Sem/WfGuard64.a64_fine_bound),
   the bound of the reach guard of C14. *)
From Coq Require Import String List ZArith NArith Bool Lia.
From SCC Require Import Base.Sexp Lang.AxSyn Lang.AxSize Model.ParMoves Model.Backend Model.A64 Model.Linearize Model.LinCheck
     Sem.WfGuard64 Proof.LinBasics Proof.SubstGraph Proof.SubstBackends Proof.SizeLin Proof.SizeCodegen Proof.SizeExchange
     Proof.SizeCodegenWf Proof.SizeCodegenFine Proof.SizeA64.
From SCC Require Model.SizeWf.
Import ListNotations.
Open Scope list_scope.
Open Scope N_scope.
Local Arguments N.add : simpl never.
Local Arguments N.mul : simpl never.
Local Arguments N.sub : simpl never.
Local Arguments N.of_nat : simpl never.
Local Arguments len : simpl never.

Section A64Fine.
Variable mark : ctx -> list acode.
Hypothesis mark_len : forall c, len (mark c) <= 1.
Let B := a64_backend_with mark.

Lemma a64_exchange_fine : forall re c code, NoDup (ids c) -> NoDup (SizeWf.new_ids_of re) ->
  code_exchange B (transpose re c) c (map fst re) = Ok code -> len code <= A64_K0 * (1 + len c + len re).
Proof.
  intros re c code N1 N2 H.
  pose proof (exchange_len B (a64_with_ok mark) 2 l_mov l_store_temporary l_restore_temporary c re code N1 N2 H) as G.
  unfold A64_K0. lia.
Qed.

Theorem a64_translate_fine : forall types ds lc code lc',
  SizeWf.sub_wf_defs ds = true ->
  translate B types ds lc = Ok (code, lc') -> len code <= cg_fine_defs A64_K0 A64_KM ds.
Proof.
  apply (translate_size_fine B A64_K0 A64_KM);
    cbn [B a64_backend_with b_mark b_jump b_jump_label b_jump_label_fixed b_jcc2 b_jcc1
      b_load_immediate b_load_label b_add_and_jump b_arith b_mov b_print b_erase b_share_n b_store b_load]; unfold A64_K0, A64_KM.
  - lia.
  - intros c. pose proof (mark_len c). lia.
  - intros t. pose proof (l_jump t). lia.
  - intros l. lens. lia.
  - intros l. lens. lia.
  - intros so a b l. lens. pose proof (l_compare a b). lia.
  - intros so a l. lens. pose proof (l_compare_immediate a 0). lia.
  - intros t z. pose proof (l_load_immediate t z). lia.
  - intros t l. pose proof (l_load_label t l). lia.
  - intros t z. pose proof (l_add_and_jump t z). lia.
  - intros o a b c. pose proof (l_arith o a b c). lia.
  - intros a b. pose proof (l_mov a b). lia.
  - intros nl t c. pose proof (l_print nl t c). lia.
  - intros t lc. pose proof (l_erase_block t lc). lia.
  - intros t n lc. pose proof (l_share_block t n lc). lia.
  - intros a r lc code lc' H. apply l_store in H. change FPB with 3 in H. lia.
  - intros a r lc code lc' H. apply l_load in H. lia.
  - exact a64_exchange_fine.
Qed.
End A64Fine.

Theorem a64_compile_fine_size : forall p lc r n lc',
  SizeWf.sub_wf_prog p = true -> a64_compile p lc = Ok (r, n, lc') -> len r <= a64_fine_bound p.
Proof.
  intros p lc r n lc' HW H. destruct (a64_compile_routine _ _ _ _ _ H) as (c1 & lc1 & T & L).
  apply (a64_translate_fine (fun _ => [])) in T; [|intros; lens; lia|exact HW]. unfold a64_fine_bound. lia.
Qed.

(* the fine bound is never worse than the bound of C19 *)
Lemma cg_fine_le_bound k m (HK : k <= m) : forall s n, cg_fine k m s n <= m * cg_bound s n.
Proof.
  induction s using stmt_ind2; intros n0.
  - cbn [cg_fine cg_bound]. specialize (IHs (len re)). nia.
  - cbn [cg_fine cg_bound]. nia.
  - cbn [cg_fine cg_bound]. specialize (IHs (n0 - len args + 1)). nia.
  - rewrite cg_fine_switch, cg_bound_switch.
    assert (G : cg_fine_sw k m n0 cls <= m * cg_bound_sw n0 cls).
    { induction H as [|[[x cx] b] r Hb Hr IHr]; cbn [cg_fine_sw cg_bound_sw]; [lia|].
      unfold cl_body in Hb; cbn [snd] in Hb. specialize (Hb (n0 - 1 + len cx)). nia. }
    nia.
  - rewrite cg_fine_create, cg_bound_create. specialize (IHs (n0 - env_len env + 1)).
    assert (G : cg_fine_cr k m (env_len env) cls <= m * cg_bound_cr (env_len env) cls).
    { induction H as [|[[x cx] b] r Hb Hr IHr]; cbn [cg_fine_cr cg_bound_cr]; [lia|].
      unfold cl_body in Hb; cbn [snd] in Hb. specialize (Hb (len cx + env_len env)). nia. }
    nia.
  - cbn [cg_fine cg_bound]. nia.
  - cbn [cg_fine cg_bound]. specialize (IHs (n0 + 1)). nia.
  - cbn [cg_fine cg_bound]. specialize (IHs (n0 + 1)). nia.
  - cbn [cg_fine cg_bound]. specialize (IHs n0). nia.
  - cbn [cg_fine cg_bound]. specialize (IHs1 n0). specialize (IHs2 n0). nia.
  - cbn [cg_fine cg_bound]. nia.
Qed.
Lemma cg_fine_defs_le k m (HK : k <= m) : forall ds, cg_fine_defs k m ds <= m * cg_bound_defs ds.
Proof.
  induction ds as [|d r IH]; cbn [cg_fine_defs cg_bound_defs]; [lia|].
  pose proof (cg_fine_le_bound k m HK (dbody d) (len (dctx d))). nia.
Qed.
