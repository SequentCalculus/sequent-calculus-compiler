(* C03, semantic preservation: simply typed Core programs never meet a kind clash.

   [tc_prog] (Model/FocusGuard.v) is a boolean type checker for Core with exact annotations.  Typing
   of machine states ([ct]) is preserved by every transition ([ct_step]); a by-name producer value has
   a codata type, the by-value return continuation [KRet] a non-codata type, and a cut relates values
   of ONE type - so a typed configuration is no kind clash ([ct_no_clash]).  Hence [tc_clash_free_prog]:
   the run-time hypothesis of the preservation theorems holds for every run of a typed program. *)
From Coq Require Import List ZArith NArith String Bool Lia.
From SCC Require Import Proof.CoreInd.
From SCC Require Import Base.Sexp Lang.SynUtil Lang.CoreSyn Sem.AxSem Sem.CoreSem Model.FocusGuard
     Proof.SubstProof Proof.FocusKont Proof.FocusSim Proof.FocusRun.
Import ListNotations.
Open Scope list_scope.

Lemma cty_eqb_eq : forall a b, cty_eqb a b = true -> a = b.
Proof.
  intros [|x] [|y]; simpl; intros H; try discriminate; [reflexivity|].
  apply cident_eqb_eq in H. congruence.
Qed.
Lemma cty_list_eqb_eq : forall a b, list_eqb cty_eqb a b = true -> a = b.
Proof.
  induction a as [|x a IH]; intros [|y b]; simpl; intros H; try discriminate; [reflexivity|].
  apply andb_true_iff in H. destruct H as [H1 H2]. apply cty_eqb_eq in H1. apply IH in H2. congruence.
Qed.

Section Typed.
Variable p : cprog.
Hypothesis Hprog : tc_prog p = true.

Notation tct := (tc_term p).
Notation tca := (tc_arg p).
Notation tcc := (tc_clause p).
Notation tcs := (tc_stmt p).

(* argument lists against a list of types.  [tc_term] (Model/FocusGuard.v) checks them with an anonymous nested
   fix, as the termination checker demands; this is that fix under a name ([tc_args_eq]) so that lemmas can speak of it *)
Fixpoint tc_args (S : tenv) (l : list carg) (ts : list cty) {struct l} : bool :=
  match l, ts with
  | [], [] => true
  | x :: r, t0 :: tr => tca S t0 x && tc_args S r tr
  | _, _ => false
  end.
Lemma tc_args_eq : forall S args tys,
  (fix go (l : list carg) (ts : list cty) {struct l} : bool :=
     match l, ts with
     | [], [] => true
     | x :: r, t0 :: tr => tca S t0 x && go r tr
     | _, _ => false
     end) args tys = tc_args S args tys.
Proof. intros S. induction args as [|a r IH]; intros [|t tr]; simpl; auto. rewrite IH. reflexivity. Qed.

Lemma tc_call_eq : forall S f args ty,
  tcs S (CCall f args ty) = match def_sig p f with Some tys => tc_args S args tys | None => false end.
Proof. intros. cbn. destruct (def_sig p f) as [l|]; [exact (tc_args_eq S args l) | reflexivity]. Qed.
Lemma tc_xtor_eq : forall S c c0 tag args ty0 ty,
  tct S c ty (CXtor c0 tag args ty0) =
  cty_eqb ty0 ty && match xtor_sig p (match c with CPrd => false | CCns => true end) ty tag with
                    | Some tys => tc_args S args tys
                    | None => false
                    end.
Proof.
  intros. cbn. f_equal. destruct (xtor_sig p _ ty tag) as [l|]; [exact (tc_args_eq S args l) | reflexivity].
Qed.

(* typing of machine states: [vt v ty] the value v has type ty; [et e S] the environment e against the
   type environment S; [mt m ty] the machine continuation m waits for a value of type ty; [ft f tys] the
   action f at the end of an argument list takes arguments of the types tys; [ct] configurations.
   [vt_thunk], [vt_delay] / [vt_ret] record the kind of the type (codata / not codata): that is what
   separates by-name values from KRet.  [mt_args]: the hole of a partly evaluated argument list has the type
   at its position - the values done have the types tys1, the rest checks against tys2 and f takes
   tys1 ++ ty :: tys2.  [mt_cutP]: the flag stored in MCutP is [is_codata p ty] for the type ty of the
   cut, because [clash_cut] and the machine decide by that flag. *)
Inductive vt : bval -> cty -> Prop :=
| vt_int : forall z, vt (BP (PInt z)) CI64
| vt_ctor : forall tag args ty tys, xtor_sig p false ty tag = Some tys -> vts args tys -> vt (BP (PCtor tag args)) ty
| vt_cocase : forall cls e S ty, et e S -> forallb (tcc S true ty) cls = true -> vt (BP (PCocase cls e)) ty
| vt_thunk : forall a s e S ty, is_codata p ty = true -> et e S -> tcs ((a, ty) :: S) s = true -> vt (BP (PThunk a s e)) ty
| vt_delay : forall m ty, is_codata p ty = true -> mt m ty -> vt (BP (PDelay m)) ty
| vt_mut : forall x s e S ty, et e S -> tcs ((x, ty) :: S) s = true -> vt (BK (KMuT x s e)) ty
| vt_case : forall cls e S ty, et e S -> forallb (tcc S false ty) cls = true -> vt (BK (KCase cls e)) ty
| vt_dtor : forall tag args ty tys, xtor_sig p true ty tag = Some tys -> vts args tys -> vt (BK (KDtor tag args)) ty
| vt_ret : forall m ty, is_codata p ty = false -> mt m ty -> vt (BK (KRet m)) ty
with vts : list bval -> list cty -> Prop :=
| vts_nil : vts [] []
| vts_cons : forall v ty l tys, vt v ty -> vts l tys -> vts (v :: l) (ty :: tys)
with et : cenv -> tenv -> Prop :=
| et_nil : et [] []
| et_cons : forall x v ty e S, vt v ty -> et e S -> et ((x, v) :: e) ((x, ty) :: S)
(* [mt m ty]: m awaits a value of type ty.  In [mt_args] the hole sits between the types tys1 of the values already
   computed and the types tys2 of the arguments still to run.  In [mt_cutP] the flag stored in the frame is, by
   construction, is_codata of the cut's type: that is what ties a by-name producer to a codata type in [ct_no_clash]. *)
with mt : mk -> cty -> Prop :=
| mt_args : forall done rest e f S tys1 ty tys2,
    vts (rev done) tys1 -> et e S -> tc_args S rest tys2 = true -> ft f (tys1 ++ ty :: tys2) ->
    mt (MArgs done rest e f) ty
| mt_opL : forall o b e m S, et e S -> tct S CPrd CI64 b = true -> mt m CI64 -> mt (MOpL o b e m) CI64
| mt_opR : forall o x m, mt m CI64 -> mt (MOpR o x m) CI64
| mt_if1 : forall so b t el e S,
    et e S -> match b with Some b' => tct S CPrd CI64 b' | None => true end = true ->
    tcs S t = true -> tcs S el = true -> mt (MIf1 so b t el e) CI64
| mt_if2 : forall so x t el e S, et e S -> tcs S t = true -> tcs S el = true -> mt (MIf2 so x t el e) CI64
| mt_print : forall nl n e S, et e S -> tcs S n = true -> mt (MPrint nl n e) CI64
| mt_exit : mt MExit CI64
| mt_cutK : forall k e S ty, et e S -> tct S CCns ty k = true -> mt (MCutK k e) ty
| mt_cutP : forall pr e S ty, et e S -> tct S CPrd ty pr = true -> mt (MCutP (is_codata p ty) pr e) ty
with ft : fin -> list cty -> Prop :=
| ft_call : forall f tys, def_sig p f = Some tys -> ft (FinCall f) tys
| ft_xp : forall tag m ty tys, xtor_sig p false ty tag = Some tys -> mt m ty -> ft (FinXtorP tag m) tys
| ft_xk : forall tag m ty tys, xtor_sig p true ty tag = Some tys -> mt m ty -> ft (FinXtorK tag m) tys.

Inductive ct : config -> Prop :=
| ct_run : forall s e S, et e S -> tcs S s = true -> ct (Run s e)
| ct_arg : forall a e m S ty, et e S -> tca S ty a = true -> mt m ty -> ct (Arg a e m)
| ct_app : forall m v ty, mt m ty -> vt v ty -> ct (App m v).

Definition sres_t (r : sres) : Prop :=
  match r with SNext c => ct c | SPrint _ _ c => ct c | SHalt _ => True end.

Lemma et_lookup : forall e S, et e S -> forall x,
  match clookup e x, tfind S x with
  | Some v, Some ty => vt v ty
  | None, None => True
  | _, _ => False
  end.
Proof.
  induction 1 as [|y v ty e S HV HE IH]; intros x; simpl; [exact I|].
  destruct (cident_eqb y x); [exact HV | apply IH].
Qed.

Lemma vts_app : forall a ta b tb, vts a ta -> vts b tb -> vts (a ++ b) (ta ++ tb).
Proof. induction 1; simpl; intros; auto. constructor; auto. Qed.

Lemma et_cbind : forall ctx vs e S e1, vts vs (ctx_tys ctx) -> et e S -> cbind (cvars ctx) vs e = Some e1 ->
  et e1 (ctx_tenv ctx ++ S).
Proof.
  induction ctx as [|b r IH]; intros vs e S e1 HV HE B; simpl in *.
  - inversion HV; subst. simpl in B. inversion B; subst. exact HE.
  - inversion HV; subst. simpl in B. destruct (cbind (cvars r) l e) as [e2|] eqn:E2; [|discriminate].
    inversion B; subst. constructor; auto. eapply IH; eauto.
Qed.

(* what the type of a value says about its form *)
Lemma vt_by_name : forall pv ty, vt (BP pv) ty -> by_name pv = true -> is_codata p ty = true.
Proof. intros pv ty H B. inversion H; subst; simpl in B; try discriminate; assumption. Qed.
Lemma vt_kret : forall kv ty, vt (BK kv) ty -> is_kret kv = true -> is_codata p ty = false.
Proof. intros kv ty H B. inversion H; subst; simpl in B; try discriminate; assumption. Qed.
Lemma vt_no_clash : forall pv kv ty, vt (BP pv) ty -> vt (BK kv) ty -> clash_val pv kv = false.
Proof.
  intros pv kv ty HP HK. unfold clash_val.
  destruct (is_kret kv) eqn:K; [|reflexivity]. destruct (by_name pv) eqn:B; [|reflexivity].
  pose proof (vt_by_name _ _ HP B). pose proof (vt_kret _ _ HK K). congruence.
Qed.
Lemma vt_BP : forall v pv ty, vt v ty -> v = BP pv -> True.
Proof. trivial. Qed.

Lemma xtor_sig_tag : forall pol ty t1 t2, cident_eqb t1 t2 = true -> xtor_sig p pol ty t1 = xtor_sig p pol ty t2.
Proof. intros pol ty t1 t2 E. apply cident_eqb_eq in E. subst. reflexivity. Qed.

Lemma select_t : forall cls ce S pol ty tag args tys,
  et ce S -> forallb (tcc S pol ty) cls = true -> xtor_sig p pol ty tag = Some tys -> vts args tys ->
  sres_t (select cls ce tag args).
Proof.
  intros cls ce S pol ty tag args tys HE HC SG HV. unfold select, cfind_clause.
  induction cls as [|cl cls IH]; simpl; [exact I|].
  simpl in HC. apply andb_true_iff in HC. destruct HC as [H1 H2].
  destruct (cident_eqb (cl_xtor cl) tag) eqn:Q; [|apply IH; exact H2].
  destruct cl as [c0 x ctx body]. simpl in Q.
  change (tcc S pol ty (CClause c0 x ctx body))
    with (match xtor_sig p pol ty x with Some tys => list_eqb cty_eqb (ctx_tys ctx) tys | None => false end
          && tcs (ctx_tenv ctx ++ S) body) in H1.
  simpl cl_ctx. simpl cl_body.
  rewrite (xtor_sig_tag _ _ _ _ Q), SG in H1. apply andb_true_iff in H1. destruct H1 as [H1 H3].
  apply cty_list_eqb_eq in H1.
  destruct (cbind (cvars ctx) args ce) as [e1|] eqn:B; [|exact I].
  simpl. econstructor; [|exact H3]. eapply et_cbind; eauto. rewrite H1. exact HV.
Qed.

Lemma khead_t : forall k e S ty kv, et e S -> tct S CCns ty k = true -> khead k e = inl kv -> vt (BK kv) ty.
Proof.
  intros k e S ty kv HE HT H. destruct k; simpl in H; try discriminate.
  - simpl in HT. apply andb_true_iff in HT. destruct HT as [_ HT].
    pose proof (et_lookup _ _ HE v) as L.
    destruct (clookup e v) as [[pv|kv0]|]; try discriminate. inversion H; subst.
    destruct (tfind S v) as [tx|]; [|contradiction]. apply cty_eqb_eq in HT. subst. exact L.
  - inversion H; subst. simpl in HT. apply andb_true_iff in HT. destruct HT as [E HT]. apply cty_eqb_eq in E. subst.
    econstructor; eauto.
  - inversion H; subst. simpl in HT. apply andb_true_iff in HT. destruct HT as [E HT]. apply cty_eqb_eq in E. subst.
    econstructor; eauto.
Qed.

Lemma interact_val_t : forall pv kv ty, vt (BP pv) ty -> vt (BK kv) ty -> sres_t (interact_val pv kv).
Proof.
  intros pv kv ty HP HK. inversion HK; subst.
  - simpl. econstructor; [|eassumption]. constructor; auto.
  - inversion HP; subst; simpl; try exact I.
    + eapply select_t; eauto.
    + econstructor; [|eassumption]. constructor; auto.
    + econstructor; eauto.
  - inversion HP; subst; simpl; try exact I.
    + eapply select_t; eauto.
    + econstructor; [|eassumption]. constructor; auto.
    + econstructor; eauto.
  - inversion HP; subst; simpl; try congruence; try (econstructor; eauto).
Qed.

Lemma interact_mu_t : forall a s e S ty kv,
  et e S -> tcs ((a, ty) :: S) s = true -> vt (BK kv) ty -> sres_t (interact_mu (is_codata p ty) a s e kv).
Proof.
  intros a s e S ty kv HE HS HK.
  assert (G : ct (Run s ((a, BK kv) :: e))) by (econstructor; [|exact HS]; constructor; auto).
  destruct (is_codata p ty) eqn:CD; simpl; [|exact G].
  inversion HK; subst; try exact G.
  simpl. econstructor; [|eassumption]. constructor; auto. econstructor; eauto.
Qed.

Lemma cut_with_k_t : forall pr e S ty kv,
  et e S -> tct S CPrd ty pr = true -> vt (BK kv) ty -> sres_t (cut_with_k (is_codata p ty) pr e kv).
Proof.
  intros pr e S ty kv HE HT HK. destruct pr; simpl; try exact I.
  - simpl in HT. apply andb_true_iff in HT. destruct HT as [_ HT].
    pose proof (et_lookup _ _ HE v) as L.
    destruct (clookup e v) as [[pv|kv0]|]; try exact I.
    destruct (tfind S v) as [tx|]; [|contradiction]. apply cty_eqb_eq in HT. subst.
    eapply interact_val_t; eauto.
  - simpl in HT. apply andb_true_iff in HT. destruct HT as [E _]. apply cty_eqb_eq in E. subst.
    eapply interact_val_t; eauto. constructor.
  - simpl in HT. apply andb_true_iff in HT. destruct HT as [E HT]. apply cty_eqb_eq in E. subst.
    eapply interact_mu_t; eauto.
  - simpl in HT. apply andb_true_iff in HT. destruct HT as [E HT]. apply cty_eqb_eq in E. subst.
    eapply interact_val_t; eauto. econstructor; eauto.
Qed.

Lemma tc_find_def : forall f d, cfind_def p f = Some d -> tc_def p d = true.
Proof.
  unfold cfind_def. intros f d F. apply find_some in F. destruct F as [F _].
  unfold tc_prog in Hprog. rewrite forallb_forall in Hprog. apply Hprog; exact F.
Qed.

Lemma finish_t : forall f vals tys, ft f tys -> vts vals tys -> sres_t (finish_args p f vals).
Proof.
  intros f vals tys HF HV. inversion HF; subst; simpl.
  - unfold def_sig in H. destruct (cfind_def p f0) as [d|] eqn:FD; [|exact I]. inversion H; subst.
    destruct (cbind (cvars (cdctx d)) vals []) as [e1|] eqn:B; [|exact I].
    simpl. econstructor.
    + eapply et_cbind; eauto. constructor.
    + rewrite app_nil_r. apply tc_find_def in FD. exact FD.
  - econstructor; eauto. econstructor; eauto.
  - econstructor; eauto. econstructor; eauto.
Qed.

Lemma start_t : forall args e S f tys, et e S -> tc_args S args tys = true -> ft f tys ->
  sres_t (start_args p args e f).
Proof.
  intros args e S f tys HE HA HF. destruct args as [|a r]; simpl.
  - destruct tys; [|discriminate]. eapply finish_t; eauto. constructor.
  - destruct tys as [|t0 tr]; [discriminate|]. simpl in HA. apply andb_true_iff in HA. destruct HA as [A1 A2].
    econstructor; eauto. eapply mt_args with (tys1 := []); eauto. constructor.
Qed.

Lemma rev_append_rev' : forall (X : Type) (l : list X) b, rev_append (b :: l) [] = rev l ++ [b].
Proof. intros. rewrite rev_append_rev. simpl. rewrite app_nil_r. reflexivity. Qed.

Lemma as_int_t : forall v z, as_int v = Some z -> True.
Proof. trivial. Qed.

Theorem ct_step : forall c, ct c -> sres_t (cstep p c).
Proof.
  intros c H. destruct H as [s e S HE HS|a e m S ty HE HA HM|m v ty HM HV].
  - (* Run *)
    destruct s as [pr ty k|so a b t el|nl a next|f args ty|a ty]; simpl in HS.
    + apply andb_true_iff in HS. destruct HS as [HP HK].
      assert (XP : forall pc px pargs pt, pr = CXtor pc px pargs pt -> sres_t (cstep p (Run (CCut pr ty k) e))).
      { intros pc px pargs pt ->. simpl. change (tct S CPrd ty (CXtor pc px pargs pt) = true) in HP. rewrite tc_xtor_eq in HP. apply andb_true_iff in HP. destruct HP as [E HP].
        apply cty_eqb_eq in E. subst pt.
        destruct (xtor_sig p false ty px) as [tys|] eqn:SG; [|discriminate].
        eapply start_t; eauto. econstructor; eauto. econstructor; eauto. }
      assert (XK : forall qc qx qargs qt0, not_xtor pr -> k = CXtor qc qx qargs qt0 -> sres_t (cstep p (Run (CCut pr ty k) e))).
      { intros qc qx qargs qt0 NP ->.
        replace (cstep p (Run (CCut pr ty (CXtor qc qx qargs qt0)) e))
          with (start_args p qargs e (FinXtorK qx (MCutP (is_codata p ty) pr e)))
          by (destruct pr; try contradiction; reflexivity).
        change (tct S CCns ty (CXtor qc qx qargs qt0) = true) in HK. rewrite tc_xtor_eq in HK. apply andb_true_iff in HK. destruct HK as [E HK]. apply cty_eqb_eq in E. subst qt0.
        destruct (xtor_sig p true ty qx) as [tys|] eqn:SG; [|discriminate].
        eapply start_t; eauto. econstructor; eauto. econstructor; eauto. }
      assert (XO : forall a o b, not_xtor k -> pr = COp a o b -> sres_t (cstep p (Run (CCut pr ty k) e))).
      { intros a o b NK ->.
        replace (cstep p (Run (CCut (COp a o b) ty k) e))
          with (SNext (Arg (CProducer a) e (MOpL o b e (MCutK k e))))
          by (destruct k; try contradiction; reflexivity).
        simpl in HP. repeat (apply andb_true_iff in HP; destruct HP as [HP ?]). apply cty_eqb_eq in HP. subst ty.
        simpl. econstructor; eauto. econstructor; eauto. econstructor; eauto. }
      assert (XH : head_prd pr -> not_xtor k -> sres_t (cstep p (Run (CCut pr ty k) e))).
      { intros HPp NK.
        replace (cstep p (Run (CCut pr ty k) e))
          with (match khead k e with inl kv => cut_with_k (is_codata p ty) pr e kv | inr why => stuck why end)
          by (destruct pr; try contradiction; destruct k; try contradiction; reflexivity).
        destruct (khead k e) as [kv|why] eqn:KH; [|exact I].
        eapply cut_with_k_t; eauto. eapply khead_t; eauto. }
      destruct pr; try (eapply XP; reflexivity);
        destruct k; try (eapply XK; [exact I|reflexivity]); try (eapply XO; [exact I|reflexivity]);
        apply XH; exact I.
    + apply andb_true_iff in HS. destruct HS as [HS He]. apply andb_true_iff in HS. destruct HS as [HS Ht].
      apply andb_true_iff in HS. destruct HS as [Ha Hb].
      simpl. econstructor; eauto. econstructor; eauto.
    + apply andb_true_iff in HS. destruct HS as [Ha Hn]. simpl. econstructor; eauto. econstructor; eauto.
    + rewrite tc_call_eq in HS. destruct (def_sig p f) as [tys|] eqn:DS; [|discriminate].
      simpl. eapply start_t; eauto. constructor; auto.
    + simpl. econstructor; eauto. constructor.
  - (* Arg *)
    destruct a as [t|t]; simpl in HA.
    + destruct t as [c0 v ty0|n|a o b|c0 v s ty0|c0 tag args ty0|c0 cls ty0]; simpl; simpl in HA.
      * apply andb_true_iff in HA. destruct HA as [_ HA].
        pose proof (et_lookup _ _ HE v) as L.
        destruct (clookup e v) as [[pv|kv]|]; try exact I.
        destruct (tfind S v) as [tx|]; [|contradiction]. apply cty_eqb_eq in HA. subst. econstructor; eauto.
      * apply andb_true_iff in HA. destruct HA as [E _]. apply cty_eqb_eq in E. subst. econstructor; eauto. constructor.
      * repeat (apply andb_true_iff in HA; destruct HA as [HA ?]). apply cty_eqb_eq in HA. subst.
        econstructor; eauto. econstructor; eauto.
      * apply andb_true_iff in HA. destruct HA as [E HA]. apply cty_eqb_eq in E. subst ty0.
        destruct (is_codata p ty) eqn:CD.
        -- econstructor; eauto. econstructor; eauto.
        -- econstructor; [|exact HA]. constructor; auto. constructor; auto.
      * change (tct S CPrd ty (CXtor c0 tag args ty0) = true) in HA. rewrite tc_xtor_eq in HA.
        apply andb_true_iff in HA. destruct HA as [E HA]. apply cty_eqb_eq in E. subst ty0.
        destruct (xtor_sig p false ty tag) as [tys|] eqn:SG; [|discriminate].
        eapply start_t; eauto. econstructor; eauto.
      * apply andb_true_iff in HA. destruct HA as [E HA]. apply cty_eqb_eq in E. subst ty0.
        econstructor; eauto. econstructor; eauto.
    + destruct t as [c0 v ty0|n|a o b|c0 v s ty0|c0 tag args ty0|c0 cls ty0]; simpl; simpl in HA; try exact I.
      * apply andb_true_iff in HA. destruct HA as [_ HA].
        pose proof (et_lookup _ _ HE v) as L.
        destruct (clookup e v) as [[pv|kv]|]; try exact I.
        destruct (tfind S v) as [tx|]; [|contradiction]. apply cty_eqb_eq in HA. subst. econstructor; eauto.
      * apply andb_true_iff in HA. destruct HA as [E HA]. apply cty_eqb_eq in E. subst ty0.
        destruct (is_codata p ty) eqn:CD.
        -- econstructor; [|exact HA]. constructor; auto. constructor; auto.
        -- econstructor; eauto. econstructor; eauto.
      * change (tct S CCns ty (CXtor c0 tag args ty0) = true) in HA. rewrite tc_xtor_eq in HA.
        apply andb_true_iff in HA. destruct HA as [E HA]. apply cty_eqb_eq in E. subst ty0.
        destruct (xtor_sig p true ty tag) as [tys|] eqn:SG; [|discriminate].
        eapply start_t; eauto. econstructor; eauto.
      * apply andb_true_iff in HA. destruct HA as [E HA]. apply cty_eqb_eq in E. subst ty0.
        econstructor; eauto. econstructor; eauto.
  - (* App *)
    destruct HM; simpl.
    + destruct rest as [|a r].
      * destruct tys2; [|discriminate]. eapply finish_t; eauto.
        rewrite rev_append_rev. apply vts_app; auto. constructor; auto. constructor.
      * destruct tys2 as [|t0 tr]; [discriminate|]. simpl in H1. apply andb_true_iff in H1. destruct H1 as [A1 A2].
        econstructor; eauto. eapply mt_args with (tys1 := tys1 ++ [ty]); eauto.
        -- simpl. apply vts_app; auto. constructor; auto. constructor.
        -- rewrite <- app_assoc. exact H2.
    + destruct (as_int v); [|exact I]. econstructor; eauto. constructor; auto.
    + destruct (as_int v); [|exact I]. destruct (eval_op (ax_binop o) x z); [|exact I]. econstructor; eauto. constructor.
    + destruct (as_int v); [|exact I]. destruct b as [b0|].
      * econstructor; eauto. econstructor; eauto.
      * econstructor; eauto. destruct (eval_cmp (ax_ifsort so) z 0); auto.
    + destruct (as_int v); [|exact I]. econstructor; eauto. destruct (eval_cmp (ax_ifsort so) x z); auto.
    + destruct (as_int v); [|exact I]. econstructor; eauto.
    + destruct (as_int v); exact I.
    + destruct v as [pv|kv]; [|exact I]. destruct (khead k e) as [kv|why] eqn:KH; [|exact I].
      eapply interact_val_t; eauto. eapply khead_t; eauto.
    + destruct v as [pv|kv]; [exact I|]. eapply cut_with_k_t; eauto.
Qed.

(* a typed configuration is no kind clash *)
Lemma cut_no_clash_t : forall pr e S ty kv,
  et e S -> tct S CPrd ty pr = true -> vt (BK kv) ty -> clash_cut (is_codata p ty) pr e kv = false.
Proof.
  intros pr e S ty kv HE HT HK. destruct pr; simpl; try reflexivity.
  - simpl in HT. apply andb_true_iff in HT. destruct HT as [_ HT].
    pose proof (et_lookup _ _ HE v) as L.
    destruct (clookup e v) as [[pv|kv0]|]; try reflexivity.
    destruct (tfind S v) as [tx|]; [|contradiction]. apply cty_eqb_eq in HT. subst.
    eapply vt_no_clash; eauto.
  - destruct (is_codata p ty) eqn:CD; [|reflexivity]. destruct (is_kret kv) eqn:K; [|reflexivity].
    pose proof (vt_kret _ _ HK K). congruence.
Qed.

Theorem ct_no_clash : forall c, ct c -> clash_config p c = false.
Proof.
  intros c H. destruct H as [s e S HE HS|a e m S ty HE HA HM|m v ty HM HV]; simpl; try reflexivity.
  - destruct s as [pr ty k| | | |]; try reflexivity. simpl in HS. apply andb_true_iff in HS. destruct HS as [HP HK].
    assert (G : match khead k e with inl kv => clash_cut (is_codata p ty) pr e kv | inr _ => false end = false).
    { destruct (khead k e) as [kv|] eqn:KH; [|reflexivity]. eapply cut_no_clash_t; eauto. eapply khead_t; eauto. }
    destruct pr; try reflexivity; destruct k; try reflexivity; exact G.
  - destruct HM; try reflexivity.
    + destruct v as [pv|kv]; [|reflexivity]. destruct (khead k e) as [kv|] eqn:KH; [|reflexivity].
      eapply vt_no_clash; eauto. eapply khead_t; eauto.
    + destruct v as [pv|kv]; [reflexivity|]. eapply cut_no_clash_t; eauto.
Qed.

Theorem ct_clash_free : forall fuel c, ct c -> clash_free p fuel c = true.
Proof.
  induction fuel as [|f IH]; intros c H; simpl; [reflexivity|].
  rewrite (ct_no_clash c H). simpl. pose proof (ct_step c H) as S.
  destruct (cstep p c); simpl in S; auto.
Qed.

Lemma et_entry : forall (ctx : cctx) (zs : list Z) e,
  forallb (fun b => cty_eqb (cbty b) CI64) ctx = true ->
  cbind (cvars ctx) (map (fun z => BP (PInt z)) zs) [] = Some e -> et e (ctx_tenv ctx).
Proof.
  induction ctx as [|b r IH]; intros [|z zs] e HT B; simpl in *; try discriminate.
  - inversion B; subst. constructor.
  - apply andb_true_iff in HT. destruct HT as [H1 H2]. apply cty_eqb_eq in H1.
    destruct (cbind (cvars r) (map (fun z0 => BP (PInt z0)) zs) []) as [e2|] eqn:E2; [|discriminate].
    inversion B; subst. rewrite H1. constructor; [constructor | eapply IH; eauto].
Qed.

Theorem tc_clash_free_prog : tc_entry p = true -> forall fuel args, clash_free_prog fuel p args = true.
Proof.
  intros TE fuel args. unfold clash_free_prog. unfold tc_entry in TE.
  destruct (cpdefs p) as [|d ds] eqn:DP; [reflexivity|].
  destruct (centry_env d args) as [e|] eqn:CE; [|reflexivity].
  apply ct_clash_free. unfold centry_env in CE. destruct (forallb _ (cdctx d)) eqn:CH in CE; [|discriminate].
  econstructor.
  - eapply et_entry; eauto.
  - unfold tc_prog in Hprog. rewrite DP in Hprog. simpl in Hprog. apply andb_true_iff in Hprog. tauto.
Qed.
End Typed.
