(* Facts about the two reference machines used by the simulation proof of C05: environments that
   are rearranged by an explicit substitution (`rebind`), and single steps of the linear machine on
   environments of the shape the linearizer produces. *)
From Coq Require Import String List ZArith NArith Bool Lia.
From SCC Require Import Base.Sexp Lang.AxSyn Sem.AxSem Model.Linearize Model.LinCheck.
From SCC Require Import Proof.LinBasics.
Import ListNotations.
Open Scope list_scope.

Definition good (o : obs) : Prop := (exists z, snd o = OExit z) \/ (exists w, snd o = OUndef w).
Lemma finish_stuck_not_good : forall out w, good (finish out (OStuck w)) -> False.
Proof. intros out w [[z H]|[z H]]; simpl in H; discriminate. Qed.
Lemma finish_fuel_not_good : forall out, good (finish out OOutOfFuel) -> False.
Proof. intros out [[z H]|[z H]]; simpl in H; discriminate. Qed.

Lemma lookup_app : forall a b x,
  lookup (a ++ b) x = match lookup a x with Some v => Some v | None => lookup b x end.
Proof.
  induction a as [|[y v] a IH]; intros; simpl; auto. destruct (N.eqb (idn y) x); auto.
Qed.
Lemma lookup_None : forall e x, lookup e x = None <-> ~ In x (env_ids e).
Proof.
  induction e as [|[y v] e IH]; intros x; simpl.
  - tauto.
  - destruct (N.eqb (idn y) x) eqn:E.
    + apply N.eqb_eq in E. split; [discriminate|]. intros H; exfalso; apply H; auto.
    + apply N.eqb_neq in E. rewrite IH. tauto.
Qed.
Lemma env_ids_shape : forall e c, map fst e = vars c -> env_ids e = ids c.
Proof.
  intros e c H. unfold env_ids. rewrite <- (map_map fst idn), H. apply ids_vars.
Qed.
Lemma env_ids_app : forall a b, env_ids (a ++ b) = env_ids a ++ env_ids b.
Proof. intros; unfold env_ids; apply map_app. Qed.
Lemma lookup_Some_shape : forall e c x, map fst e = vars c -> In x (ids c) -> lookup e x <> None.
Proof.
  intros e c x H Hx Hn. apply lookup_None in Hn. apply Hn. rewrite (env_ids_shape e c H). auto.
Qed.

Definition getv (le : env) (x : N) : value := match lookup le x with Some v => v | None => VInt 0 end.
Lemma getv_Some : forall le x v, lookup le x = Some v -> getv le x = v.
Proof. unfold getv; intros le x v H; rewrite H; auto. Qed.

Lemma lookups_getv : forall le (oldc : ctx),
  (forall b, In b oldc -> lookup le (idn (bvar b)) <> None) ->
  lookups le (vars oldc) = Some (map (fun b => getv le (idn (bvar b))) oldc).
Proof.
  induction oldc as [|b r IH]; intros H; [reflexivity|].
  change (vars (b :: r)) with (bvar b :: vars r). cbn [lookups map].
  rewrite IH by (intros; apply H; simpl; auto). unfold lookup_id.
  destruct (lookup le (idn (bvar b))) eqn:E.
  - rewrite (getv_Some _ _ _ E). auto.
  - exfalso. apply (H b); simpl; auto.
Qed.
Lemma bind_combine : forall xs vs, length xs = length vs -> bind xs vs = Some (combine xs vs).
Proof.
  induction xs as [|x xs IH]; intros [|v vs] H; simpl in *; try discriminate; auto.
  rewrite IH by lia. auto.
Qed.
Lemma bind_Some_length : forall xs vs e, bind xs vs = Some e -> length xs = length vs /\ e = combine xs vs.
Proof.
  induction xs as [|x xs IH]; intros [|v vs] e H; simpl in *; try discriminate.
  - inversion H; auto.
  - destruct (bind xs vs) eqn:E; try discriminate. inversion H; subst.
    apply IH in E. destruct E; subst. split; auto.
Qed.
Lemma lookups_length : forall e xs vs, lookups e xs = Some vs -> length vs = length xs.
Proof.
  induction xs as [|x xs IH]; intros vs H; simpl in *.
  - inversion H; auto.
  - destruct (lookup_id e x); try discriminate. destruct (lookups e xs) eqn:E; try discriminate.
    inversion H; subst. simpl. f_equal. apply IH; auto.
Qed.
Lemma lookups_nth : forall e xs vs, lookups e xs = Some vs ->
  forall i x, nth_error xs i = Some x -> exists v, nth_error vs i = Some v /\ lookup e (idn x) = Some v.
Proof.
  induction xs as [|x xs IH]; intros vs H i y Hi; simpl in *.
  - destruct i; discriminate.
  - unfold lookup_id in H. destruct (lookup e (idn x)) eqn:E1; try discriminate.
    destruct (lookups e xs) eqn:E; try discriminate. inversion H; subst.
    destruct i as [|i]; simpl in *.
    + inversion Hi; subst. eauto.
    + eapply IH; eauto.
Qed.

Definition rebind (le : env) (oldc newc : ctx) : env :=
  combine (vars newc) (map (fun b => getv le (idn (bvar b))) oldc).

Lemma rebind_fst : forall le oldc newc, length newc = length oldc -> map fst (rebind le oldc newc) = vars newc.
Proof.
  intros; unfold rebind. apply combine_map_fst. rewrite vars_length, map_length. auto.
Qed.
Lemma rebind_snd : forall le oldc newc, length newc = length oldc ->
  map snd (rebind le oldc newc) = map (fun b => getv le (idn (bvar b))) oldc.
Proof.
  intros; unfold rebind. apply combine_map_snd. rewrite vars_length, map_length. auto.
Qed.
Lemma combine_app : forall {A B} (a1 a2 : list A) (b1 b2 : list B), length a1 = length b1 ->
  combine (a1 ++ a2) (b1 ++ b2) = combine a1 b1 ++ combine a2 b2.
Proof.
  induction a1 as [|x a1 IH]; intros a2 [|y b1] b2 H; simpl in *; try discriminate; auto.
  f_equal. apply IH. lia.
Qed.
Lemma rebind_app : forall le o1 o2 n1 n2, length n1 = length o1 ->
  rebind le (o1 ++ o2) (n1 ++ n2) = rebind le o1 n1 ++ rebind le o2 n2.
Proof.
  intros; unfold rebind. rewrite vars_app, map_app. apply combine_app.
  rewrite vars_length, map_length. auto.
Qed.
Lemma rebind_length : forall le oldc newc, length newc = length oldc -> length (rebind le oldc newc) = length newc.
Proof.
  intros; unfold rebind. rewrite combine_length, vars_length, map_length. lia.
Qed.

Lemma getv_cons_ne : forall y v le x, idn y <> x -> getv ((y, v) :: le) x = getv le x.
Proof. intros; unfold getv; simpl. apply N.eqb_neq in H. rewrite H. auto. Qed.

Lemma rebind_id : forall c le, map fst le = vars c -> NoDup (ids c) -> rebind le c c = le.
Proof.
  induction c as [|b c IH]; intros [|[y v] le] H Hnd; simpl in *; try discriminate; auto.
  inversion H; subst. inversion Hnd as [|? ? Hn Hnd']; subst.
  unfold rebind; simpl. f_equal.
  - unfold getv; simpl. rewrite N.eqb_refl. auto.
  - assert (E : map (fun b0 => getv ((bvar b, v) :: le) (idn (bvar b0))) c = map (fun b0 => getv le (idn (bvar b0))) c).
    { apply map_ext_in. intros b0 Hb0. apply getv_cons_ne. intros E. apply Hn. rewrite E. apply In_ids; auto. }
    rewrite E. apply IH; auto.
Qed.

Lemma rebind_lookup : forall le newc oldc rest bn bo,
  NoDup (ids newc) -> length newc = length oldc -> In (bn, bo) (combine newc oldc) ->
  lookup (rebind le oldc newc ++ rest) (idn (bvar bn)) = Some (getv le (idn (bvar bo))).
Proof.
  induction newc as [|x newc IH]; intros [|y oldc] rest bn bo Hnd Hlen Hin; simpl in *; try tauto; try discriminate.
  inversion Hnd as [|? ? Hn Hnd']; subst.
  unfold rebind; simpl. destruct Hin as [Hin|Hin].
  - inversion Hin; subst. rewrite N.eqb_refl. auto.
  - destruct (N.eqb (idn (bvar x)) (idn (bvar bn))) eqn:E.
    + apply N.eqb_eq in E. exfalso. apply Hn. rewrite E. apply In_ids. eapply in_combine_l; eauto.
    + apply (IH oldc rest bn bo); auto.
Qed.
Lemma combine_self_In : forall {A} (l : list A) x, In x l -> In (x, x) (combine l l).
Proof. induction l as [|y l IH]; intros x H; simpl in *; [tauto|]. destruct H as [->|H]; auto. Qed.
Lemma rebind_self_lookup : forall le nc rest x,
  NoDup (ids nc) -> In x (ids nc) -> lookup (rebind le nc nc ++ rest) x = Some (getv le x).
Proof.
  intros le nc rest x Hnd Hx. apply In_ids_ex in Hx. destruct Hx as [b [B1 B2]]. subst x.
  apply rebind_lookup; auto. apply combine_self_In; auto.
Qed.
Lemma rebind_notin : forall le oldc newc rest x,
  length newc = length oldc -> ~ In x (ids newc) -> lookup (rebind le oldc newc ++ rest) x = lookup rest x.
Proof.
  intros le oldc newc rest x Hlen Hx. rewrite lookup_app.
  assert (E : lookup (rebind le oldc newc) x = None).
  { apply lookup_None. rewrite (env_ids_shape _ newc); auto. apply rebind_fst; auto. }
  rewrite E. auto.
Qed.

Lemma split_last_app : forall {X} (a b : list X), split_last (length b) (a ++ b) = Some (a, b).
Proof.
  intros X a b; unfold split_last. rewrite app_length.
  destruct (Nat.leb (length b) (length a + length b)) eqn:E.
  - replace (length a + length b - length b)%nat with (length a) by lia.
    rewrite firstn_app, skipn_app, firstn_all, skipn_all, Nat.sub_diag; simpl.
    rewrite app_nil_r; auto.
  - apply Nat.leb_gt in E; lia.
Qed.
Lemma ids_eqb_refl : forall l, ids_eqb l l = true.
Proof. induction l; simpl; auto. rewrite N.eqb_refl; auto. Qed.

Section Steps.
  Variable P' : prog.

  Lemma subst_step : forall n le (newc oldc : ctx) body out,
    length newc = length oldc -> (forall b, In b oldc -> lookup le (idn (bvar b)) <> None) ->
    exec_linear (S n) P' le (Substitute (combine newc (vars oldc)) body) out =
    exec_linear n P' (rebind le oldc newc) body out.
  Proof.
    intros n le newc oldc body out Hlen Hin. simpl.
    assert (Hl : length newc = length (vars oldc)) by (rewrite vars_length; auto).
    rewrite (combine_map_snd _ _ Hl), (lookups_getv _ _ Hin).
    assert (E : map (fun r : binding * ident => bvar (fst r)) (combine newc (vars oldc)) = vars newc).
    { rewrite <- (map_map fst bvar). rewrite (combine_map_fst _ _ Hl). auto. }
    rewrite E, bind_combine by (rewrite vars_length, map_length; auto). reflexivity.
  Qed.

  (* the linearizer either inserts a substitution or has found the context already right; in
     both cases the core statement runs in the rearranged environment *)
  Lemma wrap_exec : forall c le (newc oldc : ctx) core s' n out,
    map fst le = vars c -> NoDup (ids c) -> length newc = length oldc ->
    (forall b, In b oldc -> In (idn (bvar b)) (ids c)) ->
    (s' = Substitute (combine newc (vars oldc)) core \/ (s' = core /\ c = oldc /\ newc = oldc)) ->
    exists k, exec_linear (k + n) P' le s' out = exec_linear n P' (rebind le oldc newc) core out.
  Proof.
    intros c le newc oldc core s' n out Hsh Hnd Hlen Hin [->|[-> [-> ->]]].
    - exists 1%nat. apply subst_step; auto. intros b Hb. eapply lookup_Some_shape; eauto.
    - exists 0%nat. simpl. rewrite rebind_id; auto.
  Qed.

  Lemma let_step : forall n e0 fs v tn tag (args : ctx) next out,
    length fs = length args -> env_ids fs = ids args ->
    exec_linear (S n) P' (e0 ++ fs) (Let v (Decl tn) tag args next) out =
    exec_linear n P' (e0 ++ [(v, VObj tn tag (map snd fs))]) next out.
  Proof.
    intros n e0 fs v tn tag args next out Hlen Hids. simpl.
    rewrite <- Hlen, split_last_app, Hids, ids_eqb_refl. reflexivity.
  Qed.

  Lemma create_step : forall n e0 cap v tn (cenv : ctx) cls next out,
    map fst cap = vars cenv ->
    exec_linear (S n) P' (e0 ++ cap) (Create v (Decl tn) (Some cenv) cls next) out =
    exec_linear n P' (e0 ++ [(v, VClo tn cls cap)]) next out.
  Proof.
    intros n e0 cap v tn cenv cls next out Hsh. simpl.
    assert (Hlen : length cap = length cenv).
    { rewrite <- (map_length fst cap), Hsh, vars_length. auto. }
    rewrite <- Hlen, split_last_app, (env_ids_shape _ _ Hsh), ids_eqb_refl.
    rewrite bind_combine by (rewrite vars_length, map_length; auto).
    assert (E : combine (vars cenv) (map snd cap) = cap).
    { rewrite <- Hsh. clear. induction cap as [|[x v] r IH]; simpl; auto. rewrite IH; auto. }
    rewrite E. reflexivity.
  Qed.

  Lemma switch_step : forall n e0 x v ty0 t tag fs cls c e1 out,
    idn x = idn v -> find_clause cls tag = Some c -> bind (vars (cl_ctx c)) fs = Some e1 ->
    exec_linear (S n) P' (e0 ++ [(x, VObj ty0 tag fs)]) (Switch v t cls) out =
    exec_linear n P' (e0 ++ e1) (cl_body c) out.
  Proof.
    intros n e0 x v ty0 t tag fs cls c e1 out Hid Hf Hb. simpl.
    change 1%nat with (length [(x, VObj ty0 tag fs)]). rewrite split_last_app.
    rewrite Hid, N.eqb_refl, Hf, Hb. reflexivity.
  Qed.

  Lemma invoke_step : forall n e0 x v ty0 t tag cls ce c e1 args out,
    idn x = idn v -> find_clause cls tag = Some c -> bind (vars (cl_ctx c)) (map snd e0) = Some e1 ->
    exec_linear (S n) P' (e0 ++ [(x, VClo ty0 cls ce)]) (Invoke v tag t args) out =
    exec_linear n P' (e1 ++ ce) (cl_body c) out.
  Proof.
    intros n e0 x v ty0 t tag cls ce c e1 args out Hid Hf Hb. simpl.
    change 1%nat with (length [(x, VClo ty0 cls ce)]). rewrite split_last_app.
    rewrite Hid, N.eqb_refl, Hf, Hb. reflexivity.
  Qed.

  Lemma call_step : forall n le l args d e' out,
    find_def P' l = Some d -> bind (vars (dctx d)) (map snd le) = Some e' ->
    exec_linear (S n) P' le (Call l args) out = exec_linear n P' e' (dbody d) out.
  Proof. intros n le l args d e' out Hf Hb. simpl. rewrite Hf, Hb. reflexivity. Qed.
End Steps.
