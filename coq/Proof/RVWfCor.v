(* C08 without hypotheses on the emitted code: `asm_wf cs = None` and `code_small cs = true` (hypotheses of
   Proof/RVSimTop.v, RVHSimCor.v) follow (Proof/RVWfAll.v) from boolean guards on the PROGRAM handed to the
   code generator (Sem/LabelGuard.v, Sem/WfGuard64.v, Sem/WfGuard.v):
     labels_guard    the label texts are unambiguous (known finding label-collision-name-digits outside it)
     imm_guard_rv    literals are 64-bit values (`LI`), a type declares fewer than 2^61 xtors (the table dispatch
                     `ADDI X1, Xt, 4k` was unencodable beyond 511 xtors: a finding, repaired - a larger offset goes
                     through `LI`)
     size_guard      cg_bound_defs <= 2^40 (the code fits the image)
   `calls_guard` follows from the linear discipline (Proof/X86WfCor.lin_check_calls_guard). *)
From Coq Require Import List ZArith NArith String Bool Lia.
From SCC Require Import Base.Sexp Lang.AxSyn Sem.AxSem Sem.AxHeap Model.Backend Model.RV Sem.RVSem Sem.RVWf
     Model.Linearize Model.LinCheck Model.Capacity Proof.LinearizeProof Proof.RVSimAddr Proof.RVSimRel Proof.RVSimTop
     Proof.RVHFrag Proof.X86HAnn Proof.X86HAnnLin Proof.RVHSimTop Proof.RVHSimCor Proof.RVHSimExample
     Sem.LabelGuard Sem.WfGuard Sem.WfGuard64 Proof.RVWfAll Proof.Fun2CoreExamples Proof.WideType.
From SCC Require Model.Heap Proof.X86SimProg Proof.X86WfCor.
Import ListNotations.
Local Open Scope list_scope.
Open Scope Z_scope.

Theorem rv_codegen_simulates_wf p lc cs n lc' args fuel o :
  h_frag p = true -> SimFrag.entry_int p = true -> lin_check_prog p = true -> ann_check_prog p = true ->
  labels_guard p = true -> imm_guard_rv p = true -> size_guard p = true ->
  rv_compile p lc = Ok (cs, n, lc') ->
  Nat.leb (main_arity p) 14 = true -> List.length args = n -> heap_fits p args ->
  run_linear fuel p args = o -> snd o <> OOutOfFuel ->
  exists outer inner, fst (run_rv outer inner cs args) = o.
Proof.
  intros FR EI LIN ANN LG IG SG XC.
  apply (rv_codegen_simulates p lc cs n lc' args fuel o FR EI LIN ANN XC).
  - exact (rv_compile_asm_wf p lc cs n lc' LG LIN IG XC).
  - exact (rv_compile_code_small p lc cs n lc' LIN SG XC).
Qed.

Corollary rv_codegen_correct_linearized_wf a lc cs n lc' args fuel o :
  prog_ok a = true ->
  h_frag (linearize a) = true -> SimFrag.entry_int (linearize a) = true ->
  labels_guard (linearize a) = true -> imm_guard_rv (linearize a) = true -> size_guard (linearize a) = true ->
  rv_compile (linearize a) lc = Ok (cs, n, lc') ->
  Nat.leb (main_arity (linearize a)) 14 = true -> heap_fits (linearize a) args ->
  run_linear fuel (linearize a) args = o -> SimFrag.good o ->
  exists outer inner, fst (run_rv outer inner cs args) = o.
Proof.
  intros OK FR EI LG IG SG XC. pose proof (linearize_exact a OK) as LIN.
  apply (rv_codegen_correct_linearized a lc cs n lc' args fuel o OK FR EI XC).
  - exact (rv_compile_asm_wf _ lc cs n lc' LG LIN IG XC).
  - exact (rv_compile_code_small _ lc cs n lc' LIN SG XC).
Qed.

(* the hypotheses are satisfiable: the heap example of C08 and the linearized stage outputs of the example programs
   of C01 pass every guard (those with print statements are then rejected by rv_compile itself) *)
Lemma rh_lin_guards_rv : labels_guard rh_lin = true /\ imm_guard_rv rh_lin = true /\ size_guard rh_lin = true.
Proof. vm_compute. repeat split; reflexivity. Qed.
Lemma wf_guard_rv_examples :
  wf_guard_rv rh_lin = true /\
  wf_guard_rv (X86WfCor.lin_of ex_calls) = true /\ wf_guard_rv (X86WfCor.lin_of ex_shared) = true /\
  wf_guard_rv (X86WfCor.lin_of ex_data) = true /\ wf_guard_rv (X86WfCor.lin_of ex_labels) = true /\
  wf_guard_rv (X86WfCor.lin_of ex_codata) = true.
Proof. vm_compute. repeat split; reflexivity. Qed.

Lemma rh_simulated_wf : exists outer inner, fst (run_rv outer inner rh_code [3; 100]) = run_linear 2000 rh_lin [3; 100].
Proof.
  pose proof rh_hypotheses as (H1 & H2 & H3 & H4 & (lc' & H5) & _ & _ & H8 & H9).
  pose proof rh_lin_guards_rv as (G1 & G2 & G3).
  refine (rv_codegen_simulates_wf rh_lin 0 rh_code 2 lc' [3; 100] 2000 _ H1 H2 H3 H4 G1 G2 G3 H5 H8 eq_refl
            (fits_run_sound 2000 _ _ H9) eq_refl _).
  rewrite (proj1 rh_runs). discriminate.
Qed.

(* Regression: the table dispatch beyond 511 xtors.  A type with 514 destructors, invoke of the last one (the stage-level form of the finding "tag dispatch immediate",
   docs/C14.md).  The code generator BEFORE the repair (old_r_add_and_jump) emits `ADDI X1, X5, 2052` and fails asm_wf
   although the program satisfies every hypothesis of the theorem; the repaired one emits `LI X1, 2052; ADD X1, X5, X1`. *)
Definition old_rv_backend : backend rcode rtemp := {|
  b_label := b_label rv_backend; b_mark := b_mark rv_backend; b_jump := b_jump rv_backend;
  b_jump_label := b_jump_label rv_backend; b_jump_label_fixed := b_jump_label_fixed rv_backend;
  b_jcc2 := b_jcc2 rv_backend; b_jcc1 := b_jcc1 rv_backend;
  b_load_immediate := b_load_immediate rv_backend; b_load_label := b_load_label rv_backend;
  b_add_and_jump := old_r_add_and_jump;
  b_arith := b_arith rv_backend; b_mov := b_mov rv_backend; b_print := b_print rv_backend;
  b_erase := b_erase rv_backend; b_share_n := b_share_n rv_backend; b_store := b_store rv_backend; b_load := b_load rv_backend;
  b_contains_spill_edge := b_contains_spill_edge rv_backend;
  b_store_temporary := b_store_temporary rv_backend; b_restore_temporary := b_restore_temporary rv_backend;
  b_temp := b_temp rv_backend; b_return1 := b_return1 rv_backend; b_jump_length := b_jump_length rv_backend;
  b_temporary_from_position := b_temporary_from_position rv_backend; b_tcompare := b_tcompare rv_backend |}.
Definition old_rv_compile (p : prog) (lc : N) : Backend.res (list rcode * nat * N) :=
  if prog_has_print p then Backend.Err "not implemented in RISC-V backend"%string else compile old_rv_backend p lc.
Definition many_xtors (n : nat) : list xtorsig := map (fun k => mkx ("d"%string, N.of_nat k) []) (seq 0 n).
Definition wide_type_prog (n : nat) : prog :=
  let big : ident := ("Big"%string, 0%N) in
  let o : ident := ("o"%string, 1%N) in
  mkp [mkd ("use"%string, 0%N) [mkb o Cns (Decl big)] (Invoke o ("d"%string, N.of_nat (n - 1)) (Decl big) [])]
      [mkt big (many_xtors n)] 1%N.
Lemma asm_wf_xtors_regression :
  let p := wide_type_prog 514 in
  wf_guard_rv p = true /\ old_imm_guard_rv p = false /\
  (exists cs n lc', old_rv_compile p 0 = Backend.Ok (cs, n, lc') /\
     asm_wf cs = Some "operand not encodable in its instruction form"%string /\
     In (ADDI TEMP 5%N 2052) cs) /\
  (exists cs n lc', rv_compile p 0 = Backend.Ok (cs, n, lc') /\ asm_wf cs = None /\
     In (LI TEMP 2052) cs /\ In (ADD TEMP 5%N TEMP) cs).
Proof.
  cbv zeta. unfold wide_type_prog, many_xtors. rewrite xtors_from_seq.
  split; [vm_compute; reflexivity|]. split; [vm_compute; reflexivity|]. split.
  - eexists _, _, _. split; [vm_compute; reflexivity|]. split; [vm_compute; reflexivity|].
    vm_compute. repeat (first [left; reflexivity|right]).
  - eexists _, _, _. split; [vm_compute; reflexivity|]. split; [vm_compute; reflexivity|].
    split; vm_compute; repeat (first [left; reflexivity|right]).
Qed.
