(* Abstract model of the allocator of lang/axcut2{x86_64,aarch64,rv64}/src/memory.rs (identical on the
   three back ends): block-granular memory (header + pointer slots), the two free lists and the
   bump frontier; with the invariant of C09 phrased by counting and its preservation by share, erase,
   acquire, alloc and release. *)
From Coq Require Import List ZArith Lia Bool Permutation.
Import ListNotations.
Open Scope Z_scope.

(* abstract heap: only headers and pointer slots matter *)
Record block := { hdr : Z; ps : list Z }.
Definition zero_block := {| hdr := 0; ps := [] |}.
Definition mem := Z -> block.
Record st := { m : mem; heap : Z; free : Z; frontier : Z }.

Definition upd (mm : mem) (a : Z) (b : block) : mem := fun x => if x =? a then b else mm x.
Definition set_hdr (mm : mem) (a h : Z) : mem := upd mm a {| hdr := h; ps := ps (mm a) |}.
Definition set_ps (mm : mem) (a : Z) (p : list Z) : mem := upd mm a {| hdr := hdr (mm a); ps := p |}.

Lemma upd_same mm a b : upd mm a b a = b.
Proof. unfold upd. now rewrite Z.eqb_refl. Qed.
Lemma upd_other mm a b x : x <> a -> upd mm a b x = mm x.
Proof. intros; unfold upd. destruct (Z.eqb_spec x a); congruence. Qed.

(* the operations of memory.rs, abstractly *)
Definition erase (p : Z) (s : st) : st :=
  if p =? 0 then s
  else if hdr (m s p) =? 0
       then {| m := set_hdr (m s) p (free s); heap := heap s; free := p; frontier := frontier s |}
       else {| m := set_hdr (m s) p (hdr (m s p) - 1); heap := heap s; free := free s; frontier := frontier s |}.

Definition share (p n : Z) (s : st) : st :=
  if p =? 0 then s
  else {| m := set_hdr (m s) p (hdr (m s p) + n); heap := heap s; free := free s; frontier := frontier s |}.

Definition release (b : Z) (s : st) : st :=
  {| m := set_hdr (m s) b (heap s); heap := b; free := free s; frontier := frontier s |}.

Definition BLOCK := 64.

(* returns the acquired block and the new state *)
Definition acquire (s : st) : Z * st :=
  let r := heap s in
  let h' := hdr (m s r) in
  if negb (h' =? 0) then
    (r, {| m := set_hdr (m s) r 0; heap := h'; free := free s; frontier := frontier s |})
  else
    let h2 := free s in
    let f' := hdr (m s h2) in
    if f' =? 0 then
      (r, {| m := m s; heap := h2; free := h2 + BLOCK; frontier := h2 + BLOCK |})
    else
      let s1 := {| m := set_hdr (m s) h2 0; heap := h2; free := f'; frontier := frontier s |} in
      (r, fold_left (fun s c => erase c s) (ps (m s h2)) s1).

Inductive chain (mm : mem) (stop : Z) : Z -> list Z -> Prop :=
| chain_nil : chain mm stop stop []
| chain_cons a l : a <> stop -> chain mm stop (hdr (mm a)) l -> chain mm stop a (a :: l).

Definition refs (mm : mem) (R cl fl : list Z) : list Z := R ++ flat_map (fun x => ps (mm x)) (cl ++ fl).
Definition cnt (l : list Z) (b : Z) : Z := Z.of_nat (count_occ Z.eq_dec l b).

Record Inv (s : st) (R hl fl cl : list Z) : Prop := {
  i_hl : chain (m s) 0 (heap s) hl;
  i_hl_ne : hl <> [];
  i_fl : chain (m s) (frontier s) (free s) fl;
  i_nodup : NoDup (hl ++ fl ++ cl);
  i_below : forall a, In a (hl ++ fl ++ cl) -> 0 < a < frontier s;
  i_fresh : forall a, frontier s <= a -> m s a = zero_block;
  i_front : 0 < frontier s;
  i_rc : forall b, In b cl -> hdr (m s b) + 1 = cnt (refs (m s) R cl fl) b;
  i_nr : forall b, b <> 0 -> ~ In b cl -> cnt (refs (m s) R cl fl) b = 0;
}.

(* membership in the ghost lists `hl ++ fl ++ cl` and their rearrangements: flatten to disjunctions *)
Ltac in_lists := rewrite ?in_app_iff in *; cbn [In] in *; rewrite ?in_app_iff in *; cbn [In] in *; intuition (subst; auto).

Lemma cnt_app l1 l2 b : cnt (l1 ++ l2) b = cnt l1 b + cnt l2 b.
Proof. unfold cnt. rewrite count_occ_app. lia. Qed.
Lemma cnt_cons a l b : cnt (a :: l) b = (if Z.eq_dec a b then 1 else 0) + cnt l b.
Proof. unfold cnt. cbn. destruct (Z.eq_dec a b); lia. Qed.
Lemma cnt_nonneg l b : 0 <= cnt l b.
Proof. unfold cnt; lia. Qed.
Lemma cnt_perm l1 l2 b : Permutation l1 l2 -> cnt l1 b = cnt l2 b.
Proof. intros H. unfold cnt. f_equal. apply (proj1 (Permutation_count_occ Z.eq_dec l1 l2) H). Qed.
Lemma cnt_pos_in l b : 0 < cnt l b -> In b l.
Proof. unfold cnt. intros H. apply (count_occ_In Z.eq_dec). lia. Qed.

Lemma flat_map_ext_in {A B} (f g : A -> list B) l : (forall x, In x l -> f x = g x) -> flat_map f l = flat_map g l.
Proof. induction l as [|a l IH]; cbn; intros H; auto. rewrite H by (now left). rewrite IH; auto. Qed.

Lemma chain_frame mm mm' stop a l : chain mm stop a l -> (forall x, In x l -> hdr (mm' x) = hdr (mm x)) -> chain mm' stop a l.
Proof. induction 1; intros H'; constructor; auto. rewrite H' by now left. apply IHchain. intros; apply H'; now right. Qed.

Lemma refs_set_hdr mm a h R cl fl : refs (set_hdr mm a h) R cl fl = refs mm R cl fl.
Proof. unfold refs. f_equal. apply flat_map_ext_in. intros x _. unfold set_hdr, upd. destruct (x =? a) eqn:E; auto.
  apply Z.eqb_eq in E. subst. reflexivity. Qed.
Lemma hdr_set_hdr_same mm a h : hdr (set_hdr mm a h a) = h.
Proof. unfold set_hdr. now rewrite upd_same. Qed.
Lemma hdr_set_hdr_other mm a h x : x <> a -> hdr (set_hdr mm a h x) = hdr (mm x).
Proof. intros. unfold set_hdr. now rewrite upd_other. Qed.
Lemma set_hdr_other mm a h x : x <> a -> set_hdr mm a h x = mm x.
Proof. intros. unfold set_hdr. now rewrite upd_other. Qed.

Lemma NoDup_app_disj {A} (l1 l2 : list A) x : NoDup (l1 ++ l2) -> In x l1 -> In x l2 -> False.
Proof. induction l1; cbn; intros H H1 H2; [tauto|]. inversion H; subst. destruct H1 as [->|H1]; [apply H4; rewrite in_app_iff; tauto|eauto]. Qed.
Lemma NoDup_app_r {A} (l1 l2 : list A) : NoDup (l1 ++ l2) -> NoDup l2.
Proof. induction l1; cbn; intros H; [auto|]. inversion H; auto. Qed.
Lemma nodup3 {A} (hl fl cl : list A) x : NoDup (hl ++ fl ++ cl) ->
  (In x cl -> ~ In x hl /\ ~ In x fl) /\ (In x fl -> ~ In x hl /\ ~ In x cl) /\ (In x hl -> ~ In x fl /\ ~ In x cl).
Proof.
  intros H. assert (H2 : NoDup (fl ++ cl)) by (clear -H; induction hl; cbn in *; auto; inversion H; auto).
  split; [|split]; intros Hx; split; intros Hy.
  - eapply (NoDup_app_disj hl (fl ++ cl)); eauto. apply in_app_iff; now right.
  - eapply (NoDup_app_disj fl cl); eauto.
  - eapply (NoDup_app_disj hl (fl ++ cl)); eauto. apply in_app_iff; now left.
  - eapply (NoDup_app_disj fl cl); eauto.
  - eapply (NoDup_app_disj hl (fl ++ cl)); eauto. apply in_app_iff; now left.
  - eapply (NoDup_app_disj hl (fl ++ cl)); eauto. apply in_app_iff; now right.
Qed.

Lemma root_counted s R hl fl cl p : Inv s R hl fl cl -> p <> 0 -> In p R -> In p cl.
Proof.
  intros I Hp0 HpR. destruct (in_dec Z.eq_dec p cl) as [?|Hn']; auto. exfalso.
  pose proof (i_nr _ _ _ _ _ I p Hp0 Hn') as H0. unfold refs in H0. rewrite cnt_app in H0.
  assert (0 < cnt R p) by (unfold cnt; pose proof (proj1 (count_occ_In Z.eq_dec R p) HpR); lia).
  pose proof (cnt_nonneg (flat_map (fun x => ps (m s x)) (cl ++ fl)) p). lia.
Qed.

Lemma cnt_repeat p k b : cnt (repeat p k) b = if Z.eq_dec p b then Z.of_nat k else 0.
Proof.
  unfold cnt. destruct (Z.eq_dec p b) as [<-|Hne].
  - now rewrite count_occ_repeat_eq.
  - now rewrite count_occ_repeat_neq by congruence.
Qed.

(* share, and erase while other references remain, only change the header of a counted block p: the
   invariant survives when the header moves by as much as the number of roots that name p *)
Lemma set_hdr_counted_inv s R R' hl fl cl p h :
  Inv s R hl fl cl -> In p cl ->
  (forall b, cnt R' b = cnt R b + (if Z.eq_dec p b then h - hdr (m s p) else 0)) ->
  Inv {| m := set_hdr (m s) p h; heap := heap s; free := free s; frontier := frontier s |} R' hl fl cl.
Proof.
  intros I Hcl HR.
  assert (Hnd := i_nodup _ _ _ _ _ I).
  destruct (proj1 (nodup3 hl fl cl p Hnd) Hcl) as [Hhl Hfl].
  assert (Hlt := i_below _ _ _ _ _ I p ltac:(rewrite !in_app_iff; auto)).
  assert (Hcnt : forall b, cnt (refs (set_hdr (m s) p h) R' cl fl) b =
                           cnt (refs (m s) R cl fl) b + (if Z.eq_dec p b then h - hdr (m s p) else 0)).
  { intros b. rewrite refs_set_hdr. unfold refs. rewrite !cnt_app, HR. lia. }
  constructor; cbn [m heap free frontier].
  - eapply chain_frame; [apply (i_hl _ _ _ _ _ I)|]. intros x Hx. apply hdr_set_hdr_other. congruence.
  - apply (i_hl_ne _ _ _ _ _ I).
  - eapply chain_frame; [apply (i_fl _ _ _ _ _ I)|]. intros x Hx. apply hdr_set_hdr_other. congruence.
  - exact Hnd.
  - apply (i_below _ _ _ _ _ I).
  - intros a Ha. rewrite set_hdr_other by lia. now apply (i_fresh _ _ _ _ _ I).
  - apply (i_front _ _ _ _ _ I).
  - intros b Hb. rewrite Hcnt. pose proof (i_rc _ _ _ _ _ I b Hb). destruct (Z.eq_dec p b) as [<-|Hne].
    + rewrite hdr_set_hdr_same. lia.
    + rewrite hdr_set_hdr_other by congruence. lia.
  - intros b Hb0 Hb. rewrite Hcnt. pose proof (i_nr _ _ _ _ _ I b Hb0 Hb). destruct (Z.eq_dec p b); [congruence|lia].
Qed.

Lemma share_inv s R hl fl cl p n :
  Inv s R hl fl cl -> 0 <= n -> (p = 0 \/ In p R) ->
  Inv (share p n s) (repeat p (Z.to_nat n) ++ R) hl fl cl \/ (p = 0 /\ share p n s = s).
Proof.
  intros I Hn Hp. unfold share. destruct (Z.eqb_spec p 0) as [->|Hp0]; [right; auto|left].
  destruct Hp as [?|HpR]; [contradiction|].
  apply set_hdr_counted_inv with (R := R); [exact I|eapply root_counted; eauto|].
  intros b. rewrite cnt_app, cnt_repeat. destruct (Z.eq_dec p b); lia.
Qed.

Lemma flat_map_perm {A B} (f : A -> list B) l1 l2 : Permutation l1 l2 -> Permutation (flat_map f l1) (flat_map f l2).
Proof. induction 1; cbn; auto.
  - now apply Permutation_app_head.
  - rewrite !app_assoc. apply Permutation_app_tail. apply Permutation_app_comm.
  - eauto using Permutation_trans. Qed.

Lemma refs_perm mm R R' cl cl' fl fl' b :
  Permutation R R' -> Permutation (cl ++ fl) (cl' ++ fl') ->
  cnt (refs mm R cl fl) b = cnt (refs mm R' cl' fl') b.
Proof. intros H1 H2. unfold refs. rewrite !cnt_app. f_equal; apply cnt_perm; auto. now apply flat_map_perm. Qed.

Lemma rc_nonneg s R hl fl cl p : Inv s R hl fl cl -> In p cl -> In p R -> 0 <= hdr (m s p).
Proof.
  intros I Hcl HR. pose proof (i_rc _ _ _ _ _ I p Hcl) as H. unfold refs in H. rewrite cnt_app in H.
  assert (0 < cnt R p) by (unfold cnt; pose proof (proj1 (count_occ_In Z.eq_dec R p) HR); lia).
  pose proof (cnt_nonneg (flat_map (fun x => ps (m s x)) (cl ++ fl)) p). lia.
Qed.

(* other references remain: the count goes down by one *)
Lemma erase_shared_inv s R R0 hl fl cl p :
  Inv s R hl fl cl -> p <> 0 -> Permutation R (p :: R0) -> hdr (m s p) <> 0 ->
  Inv (erase p s) R0 hl fl cl.
Proof.
  intros I Hp0 HR Hn0.
  assert (In p R) as HpR by (eapply Permutation_in; [symmetry; eauto|now left]).
  unfold erase. destruct (Z.eqb_spec p 0); [contradiction|]. destruct (Z.eqb_spec (hdr (m s p)) 0); [contradiction|].
  apply set_hdr_counted_inv with (R := R); [exact I|eapply root_counted; eauto|].
  intros b. rewrite (cnt_perm _ _ b HR), cnt_cons. destruct (Z.eq_dec p b); lia.
Qed.

(* last reference: p goes onto the deferred list, its slots stay counted *)
Lemma erase_last_inv s R R0 hl fl cl p :
  Inv s R hl fl cl -> p <> 0 -> Permutation R (p :: R0) -> hdr (m s p) = 0 ->
  exists c1 c2, cl = c1 ++ p :: c2 /\ Inv (erase p s) R0 hl (p :: fl) (c1 ++ c2).
Proof.
  intros I Hp0 HR H0.
  assert (In p R) as HpR by (eapply Permutation_in; [symmetry; eauto|now left]).
  assert (In p cl) as Hcl by (eapply root_counted; eauto).
  assert (Hnd := i_nodup _ _ _ _ _ I).
  destruct (proj1 (nodup3 hl fl cl p Hnd) Hcl) as [Hhl Hfl].
  assert (Hlt := i_below _ _ _ _ _ I p ltac:(rewrite !in_app_iff; auto)).
  assert (Hcnt : forall b, cnt (refs (m s) R cl fl) b = (if Z.eq_dec p b then 1 else 0) + cnt (refs (m s) R0 cl fl) b).
  { intros b. rewrite (refs_perm (m s) R (p :: R0) cl cl fl fl b HR (Permutation_refl _)).
    unfold refs. cbn [app]. now rewrite cnt_cons. }
  unfold erase. destruct (Z.eqb_spec p 0) as [|_]; [contradiction|].
  destruct (Z.eqb_spec (hdr (m s p)) 0) as [_|Hn0]; [|contradiction].
  apply in_split in Hcl as (c1 & c2 & ->).
  exists c1, c2. split; [reflexivity|].
  assert (Permutation ((c1 ++ p :: c2) ++ fl) ((c1 ++ c2) ++ p :: fl)) as HP.
  { rewrite <- !app_assoc. apply Permutation_app_head. cbn. apply Permutation_middle. }
  assert (~ In p (c1 ++ c2)) as Hpc.
  { intro Hin. pose proof (NoDup_app_r _ _ (NoDup_app_r _ _ Hnd)) as Hnd'.
    apply NoDup_remove_2 in Hnd'. contradiction. }
  constructor; cbn [m heap free frontier].
  + eapply chain_frame; [apply (i_hl _ _ _ _ _ I)|]. intros x Hx. apply hdr_set_hdr_other. congruence.
  + apply (i_hl_ne _ _ _ _ _ I).
  + constructor; [lia|]. rewrite hdr_set_hdr_same.
    eapply chain_frame; [apply (i_fl _ _ _ _ _ I)|]. intros x Hx. apply hdr_set_hdr_other. congruence.
  + eapply Permutation_NoDup; [|exact Hnd].
    apply Permutation_app_head. symmetry. cbn [app].
    rewrite (app_assoc fl c1 c2), (app_assoc fl c1 (p :: c2)). apply Permutation_middle.
  + intros a Ha. apply (i_below _ _ _ _ _ I). rewrite !in_app_iff in *. cbn in Ha. cbn. intuition (subst; auto).
  + intros a Ha. rewrite set_hdr_other by lia. now apply (i_fresh _ _ _ _ _ I).
  + apply (i_front _ _ _ _ _ I).
  + intros b Hb. rewrite refs_set_hdr.
    assert (b <> p) by congruence. rewrite hdr_set_hdr_other by auto.
    rewrite <- (refs_perm (m s) R0 R0 (c1 ++ p :: c2) (c1 ++ c2) fl (p :: fl) b (Permutation_refl _) HP).
    pose proof (i_rc _ _ _ _ _ I b ltac:(rewrite in_app_iff in *; cbn; tauto)) as Hrc.
    rewrite Hcnt in Hrc. destruct (Z.eq_dec p b); [congruence|lia].
  + intros b Hb0 Hb. rewrite refs_set_hdr.
    rewrite <- (refs_perm (m s) R0 R0 (c1 ++ p :: c2) (c1 ++ c2) fl (p :: fl) b (Permutation_refl _) HP).
    destruct (Z.eq_dec p b) as [<-|Hne].
    * pose proof (i_rc _ _ _ _ _ I p ltac:(rewrite in_app_iff; cbn; tauto)) as Hrc.
      rewrite Hcnt in Hrc. destruct (Z.eq_dec p p); [lia|congruence].
    * pose proof (i_nr _ _ _ _ _ I b Hb0) as Hnr. rewrite Hcnt in Hnr.
      destruct (Z.eq_dec p b); [congruence|]. apply Hnr. rewrite in_app_iff in *. cbn. intuition congruence.
Qed.

Lemma erase_inv s R R0 hl fl cl p :
  Inv s R hl fl cl -> p <> 0 -> Permutation R (p :: R0) ->
  exists fl' cl', Inv (erase p s) R0 hl fl' cl'.
Proof.
  intros I Hp0 HR. destruct (Z.eq_dec (hdr (m s p)) 0) as [H0|Hn0].
  - destruct (erase_last_inv _ _ _ _ _ _ _ I Hp0 HR H0) as (c1 & c2 & _ & I'). eauto.
  - eauto using erase_shared_inv.
Qed.

(* a list of erasures (children of a recycled block) *)
Definition nz (l : list Z) : list Z := filter (fun x => negb (x =? 0)) l.

Lemma erase_list_inv : forall l s R hl fl cl,
  Inv s (nz l ++ R) hl fl cl ->
  exists fl' cl', Inv (fold_left (fun s c => erase c s) l s) R hl fl' cl'.
Proof.
  induction l as [|c l IH]; intros s R hl fl cl I; cbn [fold_left nz filter app] in *; [eauto|].
  destruct (Z.eqb_spec c 0) as [->|Hc]; cbn [negb] in I.
  - change (erase 0 s) with s. fold (nz l) in I. eauto.
  - fold (nz l) in I. cbn [app] in I.
    destruct (erase_inv s (c :: nz l ++ R) (nz l ++ R) hl fl cl c I Hc (Permutation_refl _)) as (fl1 & cl1 & I1).
    eauto.
Qed.

Lemma set_ps_hl_inv s R hl fl cl a p :
  Inv s R hl fl cl -> In a hl ->
  Inv {| m := set_ps (m s) a p; heap := heap s; free := free s; frontier := frontier s |} R hl fl cl.
Proof.
  intros I Ha. assert (Hnd := i_nodup _ _ _ _ _ I).
  destruct (proj2 (proj2 (nodup3 hl fl cl a Hnd)) Ha) as [Hfl Hcl].
  assert (Hh : forall x, hdr (set_ps (m s) a p x) = hdr (m s x)).
  { intros x. unfold set_ps, upd. destruct (Z.eqb_spec x a); subst; auto. }
  assert (Hr : refs (set_ps (m s) a p) R cl fl = refs (m s) R cl fl).
  { unfold refs. f_equal. apply flat_map_ext_in. intros x Hx. unfold set_ps. rewrite upd_other; auto.
    intros ->. apply in_app_iff in Hx. tauto. }
  assert (Hlt := i_below _ _ _ _ _ I a ltac:(rewrite !in_app_iff; auto)).
  constructor; cbn [m heap free frontier].
  - eapply chain_frame; [apply (i_hl _ _ _ _ _ I)|]. auto.
  - apply (i_hl_ne _ _ _ _ _ I).
  - eapply chain_frame; [apply (i_fl _ _ _ _ _ I)|]. auto.
  - exact Hnd.
  - apply (i_below _ _ _ _ _ I).
  - intros x Hx. unfold set_ps. rewrite upd_other by lia. now apply (i_fresh _ _ _ _ _ I).
  - apply (i_front _ _ _ _ _ I).
  - intros b Hb. rewrite Hh, Hr. now apply (i_rc _ _ _ _ _ I).
  - intros b Hb0 Hb. rewrite Hr. now apply (i_nr _ _ _ _ _ I).
Qed.

Lemma inv_perm_R s R R' hl fl cl : Permutation R R' -> Inv s R hl fl cl -> Inv s R' hl fl cl.
Proof.
  intros HP I. destruct I. constructor; auto.
  - intros b Hb. rewrite <- (refs_perm (m s) R R' cl cl fl fl b HP (Permutation_refl _)). auto.
  - intros b Hb0 Hb. rewrite <- (refs_perm (m s) R R' cl cl fl fl b HP (Permutation_refl _)). auto.
Qed.

Lemma cnt_nz l b : b <> 0 -> cnt (nz l) b = cnt l b.
Proof. intros Hb. unfold nz. induction l as [|a l IH]; cbn [filter]; auto. destruct (Z.eqb_spec a 0) as [->|Ha]; cbn [negb].
  - rewrite cnt_cons. destruct (Z.eq_dec 0 b); [congruence|lia].
  - rewrite !cnt_cons. lia. Qed.

Lemma chain_head mm stop a l : chain mm stop a l -> l <> [] -> exists l', l = a :: l' /\ a <> stop /\ chain mm stop (hdr (mm a)) l'.
Proof. destruct 1; [congruence|eauto]. Qed.
Lemma chain_stop_nil mm stop l : chain mm stop stop l -> l = [].
Proof. inversion 1; congruence. Qed.
Lemma chain_nonstop mm stop a l : chain mm stop a l -> a <> stop -> exists l', l = a :: l' /\ chain mm stop (hdr (mm a)) l'.
Proof. destruct 1; [congruence|eauto]. Qed.

(* acquire, the three cases with their witnesses.  In case 2 the state s1 is the one before the
   lazy erasure of the recycled block's children. *)
Definition acq_s1 (s : st) : st :=
  {| m := set_hdr (m s) (free s) 0; heap := free s; free := hdr (m s (free s)); frontier := frontier s |}.

Lemma acquire_cases s R R0 hl fl cl :
  Inv s R hl fl cl ->
  Permutation R (nz (ps (m s (heap s))) ++ R0) ->
  let r := heap s in
  fst (acquire s) = r /\
  ( (* 1: the reuse list has another element *)
    (hdr (m s r) <> 0 /\ exists hl2, hl = r :: hdr (m s r) :: hl2 /\ frontier (snd (acquire s)) = frontier s /\
       Inv (snd (acquire s)) (r :: R0) (hdr (m s r) :: hl2) fl (r :: cl))
    \/ (* 3: bump *)
    (hdr (m s r) = 0 /\ hl = [r] /\ fl = [] /\ free s = frontier s /\ frontier (snd (acquire s)) = frontier s + BLOCK /\
       Inv (snd (acquire s)) (r :: R0) [frontier s] [] (r :: cl))
    \/ (* 2: recycle the first deferred block *)
    (hdr (m s r) = 0 /\ hl = [r] /\ exists fl2, fl = free s :: fl2 /\
       snd (acquire s) = fold_left (fun s c => erase c s) (ps (m s (free s))) (acq_s1 s) /\
       Inv (acq_s1 s) (nz (ps (m s (free s))) ++ r :: R0) [free s] fl2 (r :: cl)) ).
Proof.
  intros I HR r. unfold r in *; clear r. set (r := heap s) in *.
  destruct (chain_head _ _ _ _ (i_hl _ _ _ _ _ I) (i_hl_ne _ _ _ _ _ I)) as (hl1 & -> & Hr0 & Hch). fold r in Hch.
  assert (Hnd := i_nodup _ _ _ _ _ I).
  assert (Hrhl : In r (r :: hl1)) by now left.
  destruct (proj2 (proj2 (nodup3 (r :: hl1) fl cl r Hnd)) Hrhl) as [Hrfl Hrcl].
  assert (Hrlt := i_below _ _ _ _ _ I r ltac:(rewrite !in_app_iff; auto)).
  assert (Hr_unref := i_nr _ _ _ _ _ I r Hr0 Hrcl).
  rewrite (refs_perm (m s) R _ cl cl fl fl r HR (Permutation_refl _)) in Hr_unref.
  unfold refs in Hr_unref. rewrite !cnt_app, cnt_nz in Hr_unref by auto.
  pose proof (cnt_nonneg (ps (m s r)) r). pose proof (cnt_nonneg R0 r).
  pose proof (cnt_nonneg (flat_map (fun x => ps (m s x)) (cl ++ fl)) r).
  assert (Hold : forall b, b <> 0 -> cnt (refs (m s) R cl fl) b =
            cnt (ps (m s r)) b + cnt R0 b + cnt (flat_map (fun x => ps (m s x)) (cl ++ fl)) b).
  { intros b Hb. rewrite (refs_perm (m s) R _ cl cl fl fl b HR (Permutation_refl _)).
    unfold refs. rewrite !cnt_app, cnt_nz by auto. lia. }
  unfold acquire. fold r. split.
  { destruct (negb (hdr (m s r) =? 0)); [reflexivity|]. destruct (hdr (m s (free s)) =? 0); reflexivity. }
  destruct (Z.eqb_spec (hdr (m s r)) 0) as [Hh0|Hhn]; cbn [negb].
  2:{ left. split; [exact Hhn|].
    cbn [snd].
    destruct (chain_nonstop _ _ _ _ Hch Hhn) as (hl2 & -> & Hch2).
    exists hl2. split; [reflexivity|]. split; [reflexivity|].
    assert (Hfr : forall x, x <> r -> hdr (set_hdr (m s) r 0 x) = hdr (m s x)) by (intros; now apply hdr_set_hdr_other).
    assert (Hrn : ~ In r (hdr (m s r) :: hl2)).
    { assert (NoDup (r :: ((hdr (m s r) :: hl2) ++ fl ++ cl))) as Hnd' by exact Hnd.
      apply NoDup_cons_iff in Hnd' as [Hn _]. intro Hin. apply Hn. apply in_app_iff. now left. }
    constructor; cbn [m heap free frontier].
    - eapply chain_frame; [constructor; eauto|]. intros x Hx. apply Hfr. intros ->. contradiction.
    - discriminate.
    - eapply chain_frame; [apply (i_fl _ _ _ _ _ I)|]. intros x Hx. apply Hfr. congruence.
    - eapply Permutation_NoDup; [|exact Hnd].
      apply (Permutation_trans (l' := r :: ((hdr (m s r) :: hl2) ++ fl) ++ cl)).
      { rewrite <- app_assoc. reflexivity. }
      etransitivity; [apply Permutation_middle|]. rewrite <- ?app_assoc. cbn [app]. reflexivity.
    - intros a Ha. apply (i_below _ _ _ _ _ I).
      clear -Ha. in_lists.
    - intros a Ha. rewrite set_hdr_other by lia. now apply (i_fresh _ _ _ _ _ I).
    - apply (i_front _ _ _ _ _ I).
    - intros b Hb. rewrite refs_set_hdr. unfold refs. cbn [app flat_map]. rewrite cnt_cons, !cnt_app.
      destruct Hb as [<-|Hb].
      + rewrite hdr_set_hdr_same. destruct (Z.eq_dec r r); [|congruence]. lia.
      + assert (b <> r) by congruence. assert (b <> 0) by (intros ->; pose proof (i_below _ _ _ _ _ I 0 ltac:(rewrite !in_app_iff; auto)); lia).
        rewrite Hfr by auto. pose proof (i_rc _ _ _ _ _ I b Hb) as Hrc. rewrite Hold in Hrc by auto.
        destruct (Z.eq_dec r b); [congruence|]. lia.
    - intros b Hb0 Hb. rewrite refs_set_hdr. unfold refs. cbn [app flat_map]. rewrite cnt_cons, !cnt_app.
      assert (b <> r) by (intros ->; apply Hb; now left).
      pose proof (i_nr _ _ _ _ _ I b Hb0 ltac:(intro; apply Hb; now right)) as Hnr. rewrite Hold in Hnr by auto.
      destruct (Z.eq_dec r b); [congruence|]. lia. }
  right.
  cbn [snd]. rewrite Hh0 in Hch. apply chain_stop_nil in Hch. subst hl1.
  set (h2 := free s) in *.
  assert (HF := i_front _ _ _ _ _ I).
  assert (Hcnt_new : forall (fl' : list Z) b, b <> 0 ->
     cnt (refs (m s) (r :: R0) (r :: cl) fl') b =
     (if Z.eq_dec r b then 1 else 0) + cnt R0 b + cnt (ps (m s r)) b + cnt (flat_map (fun x => ps (m s x)) (cl ++ fl')) b).
  { intros fl' b Hb. unfold refs. cbn [app flat_map]. rewrite cnt_cons, !cnt_app. lia. }
  destruct (Z.eqb_spec (hdr (m s h2)) 0) as [Hf0|Hfn].
  - left. split; [exact Hh0|]. split; [reflexivity|].
    cbn [snd].
    assert (h2 = frontier s /\ fl = []) as [Hh2 ->].
    { destruct (Z.eq_dec h2 (frontier s)) as [E|E].
      - split; auto. pose proof (i_fl _ _ _ _ _ I) as Hc. fold h2 in Hc. rewrite E in Hc. now apply chain_stop_nil in Hc.
      - exfalso. destruct (chain_nonstop _ _ _ _ (i_fl _ _ _ _ _ I) E) as (fl2 & -> & Hc2). fold h2 in Hc2.
        rewrite Hf0 in Hc2. assert (0 <> frontier s) by lia.
        destruct (chain_nonstop _ _ _ _ Hc2 H2) as (fl3 & -> & _).
        pose proof (i_below _ _ _ _ _ I 0 ltac:(rewrite !in_app_iff; cbn; auto)). lia. }
    split; [reflexivity|]. split; [exact Hh2|]. rewrite Hh2 in *. split; [reflexivity|]. set (F := frontier s) in *.
    assert (HmF : m s F = zero_block) by (apply (i_fresh _ _ _ _ _ I); lia).
    constructor; cbn [m heap free frontier].
    + constructor; [lia|]. rewrite HmF. cbn. constructor.
    + discriminate.
    + constructor.
    + cbn [app]. constructor.
      * intros Hin. pose proof (i_below _ _ _ _ _ I F ltac:(cbn [app]; cbn; tauto)). lia.
      * exact Hnd.
    + intros a Ha. cbn [app] in Ha. destruct Ha as [<-|Ha]; [unfold BLOCK; lia|].
      pose proof (i_below _ _ _ _ _ I a Ha). unfold BLOCK. lia.
    + intros a Ha. apply (i_fresh _ _ _ _ _ I). unfold BLOCK in Ha. lia.
    + unfold BLOCK. lia.
    + intros b Hb.
      assert (b <> 0) by (intros ->; pose proof (i_below _ _ _ _ _ I 0 ltac:(cbn [app]; cbn; tauto)); lia).
      rewrite Hcnt_new by auto. destruct Hb as [<-|Hb].
      * destruct (Z.eq_dec r r); [|congruence]. lia.
      * pose proof (i_rc _ _ _ _ _ I b Hb) as Hrc. rewrite Hold in Hrc by auto.
        destruct (Z.eq_dec r b); [subst; contradiction|]. lia.
    + intros b Hb0 Hb. rewrite Hcnt_new by auto.
      assert (b <> r) by (intros ->; apply Hb; now left).
      pose proof (i_nr _ _ _ _ _ I b Hb0 ltac:(intro; apply Hb; now right)) as Hnr. rewrite Hold in Hnr by auto.
      destruct (Z.eq_dec r b); [congruence|]. lia.
  - right. split; [exact Hh0|]. split; [reflexivity|].
    cbn [snd].
    assert (h2 <> frontier s) as Hh2f.
    { intros E. rewrite E, (i_fresh _ _ _ _ _ I (frontier s)) in Hfn by lia. now cbn in Hfn. }
    destruct (chain_nonstop _ _ _ _ (i_fl _ _ _ _ _ I) Hh2f) as (fl2 & -> & Hc2). fold h2 in Hc2.
    exists fl2. split; [reflexivity|]. split; [reflexivity|].
    assert (Hh2lt := i_below _ _ _ _ _ I h2 ltac:(rewrite !in_app_iff; cbn; auto)).
    assert (Hh2n : ~ In h2 fl2 /\ ~ In h2 cl /\ h2 <> r).
    { assert (NoDup (r :: h2 :: fl2 ++ cl)) as Hnd' by exact Hnd.
      apply NoDup_cons_iff in Hnd' as [Hr' Hnd']. apply NoDup_cons_iff in Hnd' as [Hh' _].
      rewrite in_app_iff in Hh'. repeat split; try tauto. intros ->. apply Hr'. now left. }
    destruct Hh2n as (Hh2fl & Hh2cl & Hh2r).
    unfold acq_s1. fold h2.
    assert (Hfr : forall x, x <> h2 -> hdr (set_hdr (m s) h2 0 x) = hdr (m s x)) by (intros; now apply hdr_set_hdr_other).
    constructor; cbn [m heap free frontier].
    + constructor; [lia|]. rewrite hdr_set_hdr_same. constructor.
    + discriminate.
    + eapply chain_frame; [exact Hc2|]. intros x Hx. apply Hfr. congruence.
    + eapply Permutation_NoDup; [|exact Hnd]. cbn [app].
      apply (Permutation_trans (l' := h2 :: r :: fl2 ++ cl)); [apply perm_swap|]. apply perm_skip.
      apply Permutation_middle.
    + intros a Ha. apply (i_below _ _ _ _ _ I).
      clear -Ha. in_lists.
    + intros a Ha. rewrite set_hdr_other by lia. now apply (i_fresh _ _ _ _ _ I).
    + exact HF.
    + intros b Hb. rewrite refs_set_hdr.
      assert (b <> 0) by (intros ->; pose proof (i_below _ _ _ _ _ I 0 ltac:(clear -Hb; rewrite ?in_app_iff; cbn [In] in *; rewrite ?in_app_iff; cbn [In]; intuition auto)); lia).
      assert (b <> h2) by (destruct Hb as [<-|Hb]; congruence).
      rewrite Hfr by auto.
      unfold refs. rewrite <- app_assoc, !cnt_app, cnt_nz by auto. cbn [app flat_map]. rewrite cnt_cons, !cnt_app.
      rewrite flat_map_app, cnt_app.
      destruct Hb as [<-|Hb].
      * rewrite Hh0. destruct (Z.eq_dec r r); [|congruence].
        rewrite flat_map_app, cnt_app in Hr_unref, H1. cbn [flat_map] in Hr_unref. rewrite cnt_app in Hr_unref.
        pose proof (cnt_nonneg (ps (m s h2)) r). pose proof (cnt_nonneg (flat_map (fun x => ps (m s x)) fl2) r).
        pose proof (cnt_nonneg (flat_map (fun x => ps (m s x)) cl) r). unfold h2 in *. lia.
      * pose proof (i_rc _ _ _ _ _ I b Hb) as Hrc. rewrite Hold in Hrc by auto.
        rewrite flat_map_app, cnt_app in Hrc. cbn [flat_map] in Hrc. rewrite cnt_app in Hrc.
        destruct (Z.eq_dec r b); [subst; contradiction|]. unfold h2 in *. lia.
    + intros b Hb0 Hb. rewrite refs_set_hdr.
      unfold refs. rewrite <- app_assoc, !cnt_app, cnt_nz by auto. cbn [app flat_map]. rewrite cnt_cons, !cnt_app.
      rewrite flat_map_app, cnt_app.
      assert (b <> r) by (intros ->; apply Hb; now left).
      pose proof (i_nr _ _ _ _ _ I b Hb0 ltac:(intro; apply Hb; now right)) as Hnr. rewrite Hold in Hnr by auto.
      rewrite flat_map_app, cnt_app in Hnr. cbn [flat_map] in Hnr. rewrite cnt_app in Hnr.
      destruct (Z.eq_dec r b); [congruence|]. unfold h2 in *. lia.
Qed.

Lemma acquire_inv s R R0 hl fl cl :
  Inv s R hl fl cl ->
  Permutation R (nz (ps (m s (heap s))) ++ R0) ->
  fst (acquire s) = heap s /\
  exists hl' fl' cl', Inv (snd (acquire s)) (heap s :: R0) hl' fl' cl'.
Proof.
  intros I HR. pose proof (acquire_cases s R R0 hl fl cl I HR) as H. cbv zeta in H.
  destruct H as [Hf C]. split; [exact Hf|]. destruct C as [C|[C|C]].
  - destruct C as (_ & hl2 & _ & _ & I'). eauto.
  - destruct C as (_ & _ & _ & _ & _ & I'). eauto.
  - destruct C as (_ & _ & fl2 & _ & E & I1). rewrite E.
    destruct (erase_list_inv _ _ _ _ _ _ I1) as (fl' & cl' & I2). eauto.
Qed.

(* allocation of a (single-block) object *)
Definition alloc (p : list Z) (s : st) : Z * st :=
  acquire {| m := set_ps (m s) (heap s) p; heap := heap s; free := free s; frontier := frontier s |}.

Lemma alloc_inv s R R0 hl fl cl p :
  Inv s R hl fl cl -> Permutation R (nz p ++ R0) ->
  fst (alloc p s) = heap s /\ exists hl' fl' cl', Inv (snd (alloc p s)) (heap s :: R0) hl' fl' cl'.
Proof.
  intros I HR. unfold alloc.
  assert (In (heap s) hl) as Hh.
  { destruct (chain_head _ _ _ _ (i_hl _ _ _ _ _ I) (i_hl_ne _ _ _ _ _ I)) as (l & -> & _). now left. }
  pose proof (set_ps_hl_inv s R hl fl cl (heap s) p I Hh) as I'.
  set (s' := {| m := set_ps (m s) (heap s) p; heap := heap s; free := free s; frontier := frontier s |}) in *.
  apply (acquire_inv s' R R0 hl fl cl I'). unfold s'; cbn [m heap]. unfold set_ps. now rewrite upd_same.
Qed.

(* loading an object: consuming the last reference *)
Lemma release_inv s R R0 hl fl cl p :
  Inv s R hl fl cl -> p <> 0 -> Permutation R (p :: R0) -> hdr (m s p) = 0 ->
  exists c1 c2, cl = c1 ++ p :: c2 /\ Inv (release p s) (nz (ps (m s p)) ++ R0) (p :: hl) fl (c1 ++ c2).
Proof.
  intros I Hp0 HR H0.
  assert (In p R) as HpR by (eapply Permutation_in; [symmetry; eauto|now left]).
  assert (In p cl) as Hcl by (eapply root_counted; eauto).
  assert (Hnd := i_nodup _ _ _ _ _ I).
  destruct (proj1 (nodup3 hl fl cl p Hnd) Hcl) as [Hhl Hfl].
  assert (Hlt := i_below _ _ _ _ _ I p ltac:(rewrite !in_app_iff; auto)).
  apply in_split in Hcl as (c1 & c2 & ->). exists c1, c2. split; [reflexivity|].
  assert (~ In p (c1 ++ c2)) as Hpc.
  { intro Hin. pose proof (NoDup_app_r _ _ (NoDup_app_r _ _ Hnd)) as Hnd'. apply NoDup_remove_2 in Hnd'. contradiction. }
  assert (Hfr : forall x, x <> p -> hdr (set_hdr (m s) p (heap s) x) = hdr (m s x)) by (intros; now apply hdr_set_hdr_other).
  (* counts: old in terms of the pieces *)
  assert (Hold : forall b, b <> 0 -> cnt (refs (m s) R (c1 ++ p :: c2) fl) b =
     (if Z.eq_dec p b then 1 else 0) + cnt R0 b + cnt (ps (m s p)) b + cnt (flat_map (fun x => ps (m s x)) ((c1 ++ c2) ++ fl)) b).
  { intros b Hb. rewrite (refs_perm (m s) R (p :: R0) (c1 ++ p :: c2) (p :: c1 ++ c2) fl fl b HR).
    - unfold refs. cbn [app flat_map]. rewrite cnt_cons, !cnt_app. lia.
    - apply Permutation_app_tail. symmetry. apply Permutation_middle. }
  unfold release. constructor; cbn [m heap free frontier].
  - constructor; auto. rewrite hdr_set_hdr_same. eapply chain_frame; [apply (i_hl _ _ _ _ _ I)|]. intros x Hx. apply Hfr. congruence.
  - discriminate.
  - eapply chain_frame; [apply (i_fl _ _ _ _ _ I)|]. intros x Hx. apply Hfr. congruence.
  - eapply Permutation_NoDup; [|exact Hnd]. cbn [app].
    apply (Permutation_trans (l' := hl ++ p :: fl ++ c1 ++ c2)).
    + apply Permutation_app_head. rewrite (app_assoc fl c1 (p :: c2)), (app_assoc fl c1 c2). symmetry. apply Permutation_middle.
    + symmetry. apply Permutation_middle.
  - intros a Ha. apply (i_below _ _ _ _ _ I).
    clear -Ha. in_lists.
  - intros a Ha. rewrite set_hdr_other by lia. now apply (i_fresh _ _ _ _ _ I).
  - apply (i_front _ _ _ _ _ I).
  - intros b Hb. rewrite refs_set_hdr. assert (b <> p) by congruence. rewrite Hfr by auto.
    assert (b <> 0) by (intros ->; pose proof (i_below _ _ _ _ _ I 0 ltac:(clear -Hb; rewrite ?in_app_iff in *; cbn [In]; intuition auto)); lia).
    pose proof (i_rc _ _ _ _ _ I b ltac:(clear -Hb; rewrite ?in_app_iff in *; cbn [In]; intuition auto)) as Hrc.
    rewrite Hold in Hrc by auto. unfold refs. rewrite !cnt_app, cnt_nz by auto.
    destruct (Z.eq_dec p b); [congruence|]. lia.
  - intros b Hb0 Hb. rewrite refs_set_hdr. unfold refs. rewrite !cnt_app, cnt_nz by auto.
    destruct (Z.eq_dec p b) as [<-|Hne].
    + pose proof (i_rc _ _ _ _ _ I p ltac:(rewrite in_app_iff; cbn; tauto)) as Hrc. rewrite Hold in Hrc by auto.
      destruct (Z.eq_dec p p); [|congruence]. lia.
    + pose proof (i_nr _ _ _ _ _ I b Hb0 ltac:(clear -Hb Hne; rewrite ?in_app_iff in *; cbn [In]; intuition auto)) as Hnr.
      rewrite Hold in Hnr by auto. destruct (Z.eq_dec p b); [congruence|]. lia.
Qed.

Lemma load_release_inv s R R0 hl fl cl p :
  Inv s R hl fl cl -> p <> 0 -> Permutation R (p :: R0) -> hdr (m s p) = 0 ->
  exists cl', Inv (release p s) (nz (ps (m s p)) ++ R0) (p :: hl) fl cl'.
Proof. intros I Hp0 HR H0. destruct (release_inv _ _ _ _ _ _ _ I Hp0 HR H0) as (c1 & c2 & _ & I'). eauto. Qed.

Definition init (base : Z) : st :=
  {| m := fun _ => zero_block; heap := base; free := base + BLOCK; frontier := base + BLOCK |}.
Lemma init_inv base : 0 < base -> Inv (init base) [] [base] [] [].
Proof.
  intros Hb. unfold init, BLOCK. constructor; cbn [m heap free frontier].
  - constructor; [lia|]. cbn. constructor.
  - discriminate.
  - constructor.
  - cbn. constructor; [tauto|constructor].
  - cbn. intros a [<-|[]]. lia.
  - reflexivity.
  - lia.
  - intros b [].
  - intros b _ _. reflexivity.
Qed.

(* C10: the frontier moves only when nothing can be reused *)
Lemma acquire_frontier s R hl fl cl :
  Inv s R hl fl cl ->
  frontier (snd (acquire s)) = frontier s \/
  (frontier (snd (acquire s)) = frontier s + BLOCK /\ hl = [heap s] /\ fl = []).
Proof.
  intros I. unfold acquire.
  destruct (Z.eqb_spec (hdr (m s (heap s))) 0) as [Hh0|Hhn]; cbn [negb]; [|left; reflexivity].
  destruct (Z.eqb_spec (hdr (m s (free s))) 0) as [Hf0|Hfn]; cbn [snd frontier].
  - right.
    destruct (chain_head _ _ _ _ (i_hl _ _ _ _ _ I) (i_hl_ne _ _ _ _ _ I)) as (hl1 & -> & Hr0 & Hch).
    rewrite Hh0 in Hch. apply chain_stop_nil in Hch. subst hl1.
    assert (HF := i_front _ _ _ _ _ I).
    destruct (Z.eq_dec (free s) (frontier s)) as [E|E].
    + rewrite E. repeat split; auto. pose proof (i_fl _ _ _ _ _ I) as Hc. rewrite E in Hc. now apply chain_stop_nil in Hc.
    + exfalso. destruct (chain_nonstop _ _ _ _ (i_fl _ _ _ _ _ I) E) as (fl2 & -> & Hc2).
      rewrite Hf0 in Hc2. assert (0 <> frontier s) by lia.
      destruct (chain_nonstop _ _ _ _ Hc2 H) as (fl3 & -> & _).
      pose proof (i_below _ _ _ _ _ I 0 ltac:(rewrite !in_app_iff; cbn; auto)). lia.
  - left. (* erasing children never moves the frontier *)
    generalize (ps (m s (free s))). intros l.
    set (s1 := {| m := _; heap := _; free := _; frontier := frontier s |}).
    change (frontier s) with (frontier s1). generalize s1. clear.
    induction l as [|c l IH]; intros s1; cbn [fold_left]; auto.
    rewrite IH. unfold erase. destruct (c =? 0); auto. destruct (hdr (m s1 c) =? 0); reflexivity.
Qed.

(* Additional operations (definitions only; their proofs are in Proof/HeapMore.v and
   Proof/HeapTrace.v). *)

(* non-destructive load (memory.rs `load`, LoadMode::Share):
   `ADDIM [p], -1`, then every field is loaded and its pointer slot shared once (share_block
   skips null). *)
Definition dec (p : Z) (s : st) : st :=
  {| m := set_hdr (m s) p (hdr (m s p) - 1); heap := heap s; free := free s; frontier := frontier s |}.
Definition share_list (l : list Z) (s : st) : st := fold_left (fun s c => share c 1 s) l s.
Definition load_share (p : Z) (s : st) : st := share_list (ps (m s p)) (dec p s).
(* `load` tests the header of the block: 0 = last reference (release), otherwise share *)
Definition load (p : Z) (s : st) : st :=
  if hdr (m s p) =? 0 then release p s else load_share p s.

(* objects chained over several blocks (memory.rs store_fields / load_fields):
   `fields` are the pointer slots of the fields of the object, left to right (0 for an integer or
   for a null pointer).  store_fields writes the LAST block first: it takes the right-most
   FIELDS_PER_BLOCK = 3 fields, right-aligned, the unused slots on the left zeroed; every further
   block (BlockPosition::Other) takes the next 2 fields from the right, right-aligned in slots 0-1,
   and the link to the block acquired just before in slot 2.  The block acquired last is the head
   of the object; it holds the left-most fields. *)
Definition lastn {A} (k : nat) (l : list A) : list A := skipn (length l - k) l.
Definition butlastn {A} (k : nat) (l : list A) : list A := firstn (length l - k) l.
Definition pad (k : nat) (l : list Z) : list Z := repeat 0 (k - length l) ++ l.

Fixpoint store_other (fuel : nat) (rest : list Z) (link : Z) (s : st) : Z * st :=
  match fuel with
  | O => (link, s)
  | S f =>
      match rest with
      | [] => (link, s)
      | _ => let '(b, s1) := alloc (pad 2 (lastn 2 rest) ++ [link]) s in
             store_other f (butlastn 2 rest) b s1
      end
  end.
(* the pointer is 0 when there is nothing to store ("mark no allocation") *)
Definition alloc_object (fields : list Z) (s : st) : Z * st :=
  match fields with
  | [] => (0, s)
  | _ => let '(b, s1) := alloc (pad 3 (lastn 3 fields)) s in
         store_other (length fields) (butlastn 3 fields) b s1
  end.

Lemma store_other_step f rest link s : rest <> [] ->
  store_other (S f) rest link s =
  let '(b, s1) := alloc (pad 2 (lastn 2 rest) ++ [link]) s in store_other f (butlastn 2 rest) b s1.
Proof. destruct rest; [congruence|reflexivity]. Qed.
Lemma alloc_object_step fields s : fields <> [] ->
  alloc_object fields s =
  let '(b, s1) := alloc (pad 3 (lastn 3 fields)) s in store_other (length fields) (butlastn 3 fields) b s1.
Proof. destruct fields; [congruence|reflexivity]. Qed.

(* the link of a non-last block is its slot 2; its fields are the other slots *)
Definition link_of (mm : mem) (p : Z) : Z := nth 2 (ps (mm p)) 0.
Definition fields_of (mm : mem) (p : Z) : list Z := firstn 2 (ps (mm p)) ++ skipn 3 (ps (mm p)).

(* k = number of blocks that follow p in its object.  load_fields visits the head first. *)
Fixpoint obj_blocks (k : nat) (mm : mem) (p : Z) : list Z :=
  p :: match k with O => [] | S k' => obj_blocks k' mm (link_of mm p) end.
Fixpoint obj_fields (k : nat) (mm : mem) (p : Z) : list Z :=
  match k with
  | O => ps (mm p)
  | S k' => fields_of mm p ++ obj_fields k' mm (link_of mm p)
  end.

(* LoadMode::Release: every block is pushed on the reuse list (release_block does not look at the
   header of a continuation block), nothing is shared *)
Fixpoint load_object_release (k : nat) (p : Z) (s : st) : st :=
  match k with
  | O => release p s
  | S k' => load_object_release k' (link_of (m s) p) (release p s)
  end.
(* LoadMode::Share: only the header of the head is decremented; the fields of every block are
   shared, the links are not *)
Fixpoint share_walk (k : nat) (p : Z) (s : st) : st :=
  match k with
  | O => share_list (ps (m s p)) s
  | S k' => share_walk k' (link_of (m s) p) (share_list (fields_of (m s) p) s)
  end.
Definition load_object_share (k : nat) (p : Z) (s : st) : st := share_walk k p (dec p s).
Definition load_object (k : nat) (p : Z) (s : st) : st :=
  if hdr (m s p) =? 0 then load_object_release k p s else load_object_share k p s.

(* number of continuation blocks of an object with n fields *)
Definition nlinks (n : nat) : nat := if Nat.leb n 3 then 0 else Nat.div (n - 3 + 1) 2.

Inductive op :=
| OShare (p n : Z)
| OErase (p : Z)
| OAlloc (slots : list Z)              (* single block with these pointer slots *)
| OLoadRelease (p : Z)
| OLoadShare (p : Z)
| OLoad (p : Z)                        (* the header test of `load`, then one of the two *)
| OAllocObj (fields : list Z)
| OLoadObjRelease (k : nat) (p : Z)
| OLoadObjShare (k : nat) (p : Z)
| OLoadObj (k : nat) (p : Z).

Definition step (s : st) (o : op) : st :=
  match o with
  | OShare p n => share p n s
  | OErase p => erase p s
  | OAlloc sl => snd (alloc sl s)
  | OLoadRelease p => release p s
  | OLoadShare p => load_share p s
  | OLoad p => load p s
  | OAllocObj f => snd (alloc_object f s)
  | OLoadObjRelease k p => load_object_release k p s
  | OLoadObjShare k p => load_object_share k p s
  | OLoadObj k p => load_object k p s
  end.

(* ghost roots: remove one occurrence / a sub-multiset *)
Fixpoint rem1 (x : Z) (l : list Z) : list Z :=
  match l with [] => [] | y :: r => if Z.eq_dec x y then r else y :: rem1 x r end.
Definition msub (l xs : list Z) : list Z := fold_left (fun l x => rem1 x l) xs l.

(* the roots after an operation; loads and allocations depend on the state before it *)
Definition ghost (s : st) (R : list Z) (o : op) : list Z :=
  match o with
  | OShare p n => if p =? 0 then R else repeat p (Z.to_nat n) ++ R
  | OErase p => if p =? 0 then R else rem1 p R
  | OAlloc sl => heap s :: msub R (nz sl)
  | OLoadRelease p | OLoadShare p | OLoad p => nz (ps (m s p)) ++ rem1 p R
  | OAllocObj f => match f with [] => R | _ => fst (alloc_object f s) :: msub R (nz f) end
  | OLoadObjRelease k p | OLoadObjShare k p | OLoadObj k p => nz (obj_fields k (m s) p) ++ rem1 p R
  end.

Definition gstep (sr : st * list Z) (o : op) : st * list Z := (step (fst sr) o, ghost (fst sr) (snd sr) o).
Definition grun (ops : list op) (sr : st * list Z) : st * list Z := fold_left gstep ops sr.
