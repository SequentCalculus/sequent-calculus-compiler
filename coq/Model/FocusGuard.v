(* Executable side conditions of the C03 preservation theorems, kept in Model/ so that modelrun
   `focus` (Model/RunFocus.v) can evaluate them on every case (tags thm-static / thm-run / thm-none, nocs, clash):

   clash_config / clash_free : the run meets no KIND CLASH - a by-name producer value (PThunk, PDelay,
       a mu at a codata cut) against a by-value return continuation (KRet); see Proof/FocusSim.v.
   sg_* bn kr                : static guard; bn = false forbids what creates a by-name value,
                               kr = false forbids what creates a KRet (Proof/FocusFrag.v).
   cs_*                      : chirality-consistent scoping - every occurrence refers to a binder of its
                               own chirality (Proof/UqAeq.v); [c] = chirality of the position as in
                               subst_term. *)
From Coq Require Import List ZArith NArith String Bool.
From SCC Require Import Base.Sexp Lang.SynUtil Lang.CoreSyn Sem.AxSem Sem.CoreSem.
Import ListNotations.
Open Scope list_scope.

(* ---------- kind clashes ---------- *)
Definition is_kret (kv : kval) : bool := match kv with KRet _ => true | _ => false end.
Definition by_name (pv : pval) : bool := match pv with PThunk _ _ _ | PDelay _ => true | _ => false end.
Definition clash_val (pv : pval) (kv : kval) : bool := is_kret kv && by_name pv.
Definition clash_cut (cd : bool) (p : cterm) (e : cenv) (kv : kval) : bool :=
  match p with
  | CMu _ _ _ _ => cd && is_kret kv
  | CXVar _ v _ => match clookup e v with Some (BP pv) => clash_val pv kv | _ => false end
  | _ => false
  end.
Definition clash_config (ps : cprog) (c : config) : bool :=
  match c with
  | Run (CCut pr ty k) e =>
      match pr, k with
      | CXtor _ _ _ _, _ => false
      | _, CXtor _ _ _ _ => false
      | COp _ _ _, _ => false
      | _, _ => match khead k e with inl kv => clash_cut (is_codata ps ty) pr e kv | inr _ => false end
      end
  | App (MCutK k e) (BP pv) => match khead k e with inl kv => clash_val pv kv | inr _ => false end
  | App (MCutP cd pr e) (BK kv) => clash_cut cd pr e kv
  | _ => false
  end.


(* no kind clash during the first [fuel] transitions *)
Fixpoint clash_free (ps : cprog) (fuel : nat) (c : config) : bool :=
  match fuel with
  | O => true
  | S f =>
      negb (clash_config ps c) &&
      match cstep ps c with
      | SNext c' => clash_free ps f c'
      | SPrint _ _ c' => clash_free ps f c'
      | SHalt _ => true
      end
  end.
Definition clash_free_prog (fuel : nat) (p : cprog) (args : list Z) : bool :=
  match cpdefs p with
  | d :: _ => match centry_env d args with Some e => clash_free p fuel (Run (cdbody d) e) | None => true end
  | [] => true
  end.


Section Guard.
Variable cod : cty -> bool.
Variables bn kr : bool.

Definition arg_ok_prd (t : cterm) : bool :=
  match t with CMu _ _ _ ty => if cod ty then bn else kr | _ => true end.
Definition arg_ok_cns (t : cterm) : bool :=
  match t with CMu _ _ _ ty => if cod ty then bn else true | _ => true end.
Definition cut_ok (cd : bool) (p : cterm) : bool :=
  match p with CMu _ _ _ _ => if cd then bn else true | _ => true end.

Fixpoint sg_term (t : cterm) : bool :=
  match t with
  | CXVar _ _ _ => true
  | CLit _ => true
  | COp a _ b => sg_term a && arg_ok_prd a && (sg_term b && arg_ok_prd b)
  | CMu _ _ s _ => sg_stmt s
  | CXtor _ _ args _ => forallb sg_arg args
  | CXCase _ cls _ => forallb sg_clause cls
  end
with sg_arg (a : carg) : bool :=
  match a with
  | CProducer p => sg_term p && arg_ok_prd p
  | CConsumer k => sg_term k && arg_ok_cns k
  end
with sg_clause (cl : cclause) : bool :=
  match cl with CClause _ _ _ b => sg_stmt b end
with sg_stmt (s : cstmt) : bool :=
  match s with
  | CCut p ty k => sg_term p && sg_term k && cut_ok (cod ty) p
  | CIfC _ a b t e =>
      sg_term a && arg_ok_prd a && match b with Some b' => sg_term b' && arg_ok_prd b' | None => true end
      && sg_stmt t && sg_stmt e
  | CPrint _ a n => sg_term a && arg_ok_prd a && sg_stmt n
  | CCall _ args _ => forallb sg_arg args
  | CExit a _ => sg_term a && arg_ok_prd a
  end.
End Guard.

Definition sg_prog (bn kr : bool) (p : cprog) : bool :=
  forallb (fun d => sg_stmt (is_codata p) bn kr (cdbody d)) (cpdefs p).


(* a mu-abstraction that is a producer binds a covariable and vice versa *)
Definition mu_binds (c : cchi) : cchi := match c with CPrd => CCns | CCns => CPrd end.


(* ---------- chirality-consistent scoping ([c] = chirality of the position, as in subst_term) ---------- *)
Fixpoint sfind (S : list (cident * cchi)) (x : cident) : option cchi :=
  match S with
  | [] => None
  | (y, ch) :: r => if cident_eqb y x then Some ch else sfind r x
  end.
Definition ctx_sc (ctx : cctx) : list (cident * cchi) := map (fun b => (cbvar b, cbchi b)) ctx.

Fixpoint cs_term (S : list (cident * cchi)) (c : cchi) (t : cterm) : bool :=
  match t with
  | CXVar _ v _ => match sfind S v with Some ch => cchi_eqb ch c | None => true end
  | CLit _ => true
  | COp a _ b => cs_term S CPrd a && cs_term S CPrd b
  | CMu c' v s _ => cs_stmt ((v, mu_binds c') :: S) s
  | CXtor _ _ args _ => forallb (cs_arg S) args
  | CXCase _ cls _ => forallb (cs_clause S) cls
  end
with cs_arg (S : list (cident * cchi)) (a : carg) : bool :=
  match a with CProducer p => cs_term S CPrd p | CConsumer k => cs_term S CCns k end
with cs_clause (S : list (cident * cchi)) (cl : cclause) : bool :=
  match cl with CClause _ _ ctx b => cs_stmt (ctx_sc ctx ++ S) b end
with cs_stmt (S : list (cident * cchi)) (s : cstmt) : bool :=
  match s with
  | CCut p _ k => cs_term S CPrd p && cs_term S CCns k
  | CIfC _ a b t e =>
      cs_term S CPrd a && match b with Some b' => cs_term S CPrd b' | None => true end && cs_stmt S t && cs_stmt S e
  | CPrint _ a n => cs_term S CPrd a && cs_stmt S n
  | CCall _ args _ => forallb (cs_arg S) args
  | CExit a _ => cs_term S CPrd a
  end.
Definition cs_def (d : cdef) : bool := cs_stmt (ctx_sc (cdctx d)) (cdbody d).
Definition cs_prog (p : cprog) : bool := forallb cs_def (cpdefs p).


(* ---------- simple types: the discipline that excludes kind clashes ----------
   [tc_* S c ty t]: the term t, standing in a position of chirality c, has type ty when the binders in
   scope have the types S (one namespace, innermost first, as in the machine).  Annotations must be
   exact: an occurrence carries the type of its binder, a cut the type of both sides; xtor arguments
   and clause contexts are checked against the declaration of the type (constructors: data_types,
   destructors: codata_types), call arguments against the parameters of the callee.  Chiralities are
   not checked here (cs_prog does that). *)
Definition tenv := list (cident * cty).
Fixpoint tfind (S : tenv) (x : cident) : option cty :=
  match S with
  | [] => None
  | (y, k) :: r => if cident_eqb y x then Some k else tfind r x
  end.

Section Types.
Variable p : cprog.
Definition ctx_tys (ctx : cctx) : list cty := map cbty ctx.
Definition ctx_tenv (ctx : cctx) : tenv := map (fun b => (cbvar b, cbty b)) ctx.
(* the declared argument types of xtor [tag] of the type [ty], looked up among the data (pol = false)
   or the codata (pol = true) declarations *)
Definition xtor_sig (pol : bool) (ty : cty) (tag : cident) : option (list cty) :=
  match ty with
  | CI64 => None
  | CDecl n =>
      if Bool.eqb (is_codata p ty) pol then
        match find (fun d => cident_eqb (ctname d) n) (if pol then cpcodata p else cpdata p) with
        | Some d =>
            match find (fun x => cident_eqb (cxname x) tag) (ctxtors d) with
            | Some x => Some (ctx_tys (cxargs x))
            | None => None
            end
        | None => None
        end
      else None
  end.
Definition def_sig (f : cident) : option (list cty) :=
  match cfind_def p f with Some d => Some (ctx_tys (cdctx d)) | None => None end.

Fixpoint tc_term (S : tenv) (c : cchi) (ty : cty) (t : cterm) : bool :=
  match t with
  | CXVar _ x ty' => cty_eqb ty' ty && match tfind S x with Some tx => cty_eqb tx ty | None => true end
  | CLit _ => cty_eqb ty CI64 && cchi_eqb c CPrd
  | COp a _ b => cty_eqb ty CI64 && cchi_eqb c CPrd && tc_term S CPrd CI64 a && tc_term S CPrd CI64 b
  | CMu _ x s ty' => cty_eqb ty' ty && tc_stmt ((x, ty) :: S) s
  | CXtor _ tag args ty' =>
      cty_eqb ty' ty &&
      match xtor_sig (match c with CPrd => false | CCns => true end) ty tag with
      | Some tys =>
          ((fix go (l : list carg) (ts : list cty) {struct l} : bool :=
              match l, ts with
              | [], [] => true
              | x :: r, t0 :: tr => tc_arg S t0 x && go r tr
              | _, _ => false
              end) args tys)
      | None => false
      end
  | CXCase _ cls ty' =>
      cty_eqb ty' ty &&
      forallb (tc_clause S (match c with CPrd => true | CCns => false end) ty) cls
  end
with tc_arg (S : tenv) (ty : cty) (a : carg) : bool :=
  match a with
  | CProducer t => tc_term S CPrd ty t
  | CConsumer t => tc_term S CCns ty t
  end
with tc_clause (S : tenv) (pol : bool) (ty : cty) (cl : cclause) : bool :=
  match cl with
  | CClause _ tag ctx b =>
      match xtor_sig pol ty tag with
      | Some tys => list_eqb cty_eqb (ctx_tys ctx) tys
      | None => false
      end && tc_stmt (ctx_tenv ctx ++ S) b
  end
with tc_stmt (S : tenv) (s : cstmt) : bool :=
  match s with
  | CCut a ty b => tc_term S CPrd ty a && tc_term S CCns ty b
  | CIfC _ a b t e =>
      tc_term S CPrd CI64 a && match b with Some b' => tc_term S CPrd CI64 b' | None => true end
      && tc_stmt S t && tc_stmt S e
  | CPrint _ a n => tc_term S CPrd CI64 a && tc_stmt S n
  | CCall f args _ =>
      match def_sig f with
      | Some tys =>
          ((fix go (l : list carg) (ts : list cty) {struct l} : bool :=
              match l, ts with
              | [], [] => true
              | x :: r, t0 :: tr => tc_arg S t0 x && go r tr
              | _, _ => false
              end) args tys)
      | None => false
      end
  | CExit a _ => tc_term S CPrd CI64 a
  end.
Definition tc_def (d : cdef) : bool := tc_stmt (ctx_tenv (cdctx d)) (cdbody d).
Definition tc_prog : bool := forallb tc_def (cpdefs p).
(* the entry definition takes integers *)
Definition tc_entry : bool :=
  match cpdefs p with
  | d :: _ => forallb (fun b => cty_eqb (cbty b) CI64) (cdctx d)
  | [] => true
  end.
End Types.

(* the static side condition of the preservation theorems: one of the two syntactic guards, or typing *)
Definition static_ok (p : cprog) : bool :=
  sg_prog false true p || sg_prog true false p || (tc_prog p && tc_entry p).
