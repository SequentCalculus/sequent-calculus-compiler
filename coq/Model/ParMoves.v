(* Functional model of lang/axcut2backend/src/parallel_moves.rs over an abstract ordered type of
   temporaries, with its correctness and termination theorems (generic in the temporaries and in
   the values they hold).  Save/Restore stand for store_temporary/restore_temporary; the
   BTreeMap/BTreeSet are association lists in key order. *)
From Coq Require Import List Bool Arith Lia.
Import ListNotations.

Section PM.
Variable T : Type.
Variable eqb : T -> T -> bool.
Hypothesis eqb_spec : forall a b, reflect (a = b) (eqb a b).
Variable V : Type.

Lemma eqb_refl a : eqb a a = true.
Proof. destruct (eqb_spec a a); congruence. Qed.
Lemma eqb_neq a b : a <> b -> eqb a b = false.
Proof. destruct (eqb_spec a b); congruence. Qed.

Inductive tree := BackEdge | Node (t : T) (cs : list tree).

Section tree_ind2.
  Variable P : tree -> Prop.
  Hypothesis HB : P BackEdge.
  Hypothesis HN : forall t cs, Forall P cs -> P (Node t cs).
  Fixpoint tree_ind2 (tr : tree) : P tr :=
    match tr with
    | BackEdge => HB
    | Node t cs => HN t cs ((fix go (l : list tree) : Forall P l :=
                               match l with [] => Forall_nil _ | c :: r => Forall_cons _ (tree_ind2 c) (go r) end) cs)
    end.
End tree_ind2.

Inductive pinstr := Mov (d s : T) | Save (t : T) | Restore (t : T).

Fixpoint nodes (tr : tree) : list T :=
  match tr with BackEdge => [] | Node t cs => t :: flat_map nodes cs end.
Fixpoint refers_back (tr : tree) : bool :=
  match tr with BackEdge => true | Node _ cs => existsb refers_back cs end.
Fixpoint tree_moves (p : T) (tr : tree) : list pinstr :=
  match tr with BackEdge => [Save p] | Node t cs => flat_map (tree_moves t) cs ++ [Mov t p] end.
Fixpoint edges (p : T) (tr : tree) : list (T * T) :=
  match tr with BackEdge => [] | Node t cs => (p, t) :: flat_map (edges t) cs end.
Fixpoint backs (p : T) (tr : tree) : list T :=
  match tr with BackEdge => [p] | Node t cs => flat_map (backs t) cs end.

Definition state := ((T -> V) * V)%type.
Definition upd (st : T -> V) (d : T) (v : V) : T -> V := fun x => if eqb x d then v else st x.
Definition step (c : state) (i : pinstr) : state :=
  match i with
  | Mov d s => (upd (fst c) d (fst c s), snd c)
  | Save t => (fst c, fst c t)
  | Restore t => (upd (fst c) t (snd c), snd c)
  end.
Definition exec (is : list pinstr) (c : state) : state := fold_left step is c.
Lemma exec_app a b c : exec (a ++ b) c = exec b (exec a c).
Proof. apply fold_left_app. Qed.
Lemma upd_same st d v : upd st d v d = v.
Proof. unfold upd; now rewrite eqb_refl. Qed.
Lemma upd_other st d v x : x <> d -> upd st d v x = st x.
Proof. intros; unfold upd; now rewrite eqb_neq. Qed.

(* scratch clause: what the scratch holds after running code with back-edge sources [bs] *)
Definition scratch_ok (bs : list T) (st : T -> V) (sc sc' : V) : Prop :=
  match rev bs with [] => sc' = sc | a :: _ => sc' = st a end.

Definition tree_post (p : T) (tr : tree) (c c' : state) : Prop :=
  (forall a b, In (a, b) (edges p tr) -> fst c' b = fst c a) /\
  (forall u, ~ In u (nodes tr) -> fst c' u = fst c u) /\
  scratch_ok (backs p tr) (fst c) (snd c) (snd c').

Definition children_post (t : T) (cs : list tree) (c c' : state) : Prop :=
  (forall a b, In (a, b) (flat_map (edges t) cs) -> fst c' b = fst c a) /\
  (forall u, ~ In u (flat_map nodes cs) -> fst c' u = fst c u) /\
  scratch_ok (flat_map (backs t) cs) (fst c) (snd c) (snd c').

Lemma edges_src p tr a b : In (a, b) (edges p tr) -> a = p \/ In a (nodes tr).
Proof.
  revert p; induction tr as [|t cs IH] using tree_ind2; intros p H; cbn in *; [tauto|].
  destruct H as [H|H]; [inversion H; auto|].
  right. apply in_flat_map in H as (c & Hc & H).
  rewrite Forall_forall in IH. destruct (IH c Hc _ H) as [->|H']; [now left|].
  right. apply in_flat_map. eauto.
Qed.
Lemma edges_dst p tr a b : In (a, b) (edges p tr) -> In b (nodes tr).
Proof.
  revert p; induction tr as [|t cs IH] using tree_ind2; intros p H; cbn in *; [tauto|].
  destruct H as [H|H]; [inversion H; auto|].
  right. apply in_flat_map in H as (c & Hc & H).
  rewrite Forall_forall in IH. apply in_flat_map. eauto.
Qed.
Lemma backs_src p tr a : In a (backs p tr) -> a = p \/ In a (nodes tr).
Proof.
  revert p; induction tr as [|t cs IH] using tree_ind2; intros p H; cbn in *; [intuition congruence|].
  apply in_flat_map in H as (c & Hc & H).
  rewrite Forall_forall in IH. destruct (IH c Hc _ H) as [->|H']; [now right; left|].
  right; right. apply in_flat_map. eauto.
Qed.

Lemma edges_dst_children t cs a b : In (a, b) (flat_map (edges t) cs) -> In b (flat_map nodes cs).
Proof. intros H. apply in_flat_map in H as (c & Hc & H). apply in_flat_map. eauto using edges_dst. Qed.
Lemma NoDup_app_l {A} (l1 l2 : list A) : NoDup (l1 ++ l2) -> NoDup l1.
Proof. induction l1; cbn; intros H; [constructor|]. inversion H; subst. constructor; [rewrite in_app_iff in *; tauto|auto]. Qed.
Lemma NoDup_app_r {A} (l1 l2 : list A) : NoDup (l1 ++ l2) -> NoDup l2.
Proof. induction l1; cbn; intros H; [auto|]. inversion H; auto. Qed.
Lemma NoDup_app_disj {A} (l1 l2 : list A) x : NoDup (l1 ++ l2) -> In x l1 -> In x l2 -> False.
Proof. induction l1; cbn; intros H H1 H2; [tauto|]. inversion H; subst. destruct H1 as [->|H1]; [apply H4; rewrite in_app_iff; tauto|eauto]. Qed.

(* the children of a node, run left to right *)
Lemma children_exec (t : T) (cs : list tree) :
  Forall (fun tr => forall p c, NoDup (nodes tr) -> ~ In p (nodes tr) ->
                                tree_post p tr c (exec (tree_moves p tr) c)) cs ->
  forall c, NoDup (flat_map nodes cs) -> ~ In t (flat_map nodes cs) ->
            children_post t cs c (exec (flat_map (tree_moves t) cs) c).
Proof.
  induction 1 as [|tr cs Htr _ IH]; intros c ND Ht.
  - cbn. repeat split; cbn; auto; tauto.
  - cbn [flat_map] in *. rewrite exec_app.
    assert (ND1 := NoDup_app_l _ _ ND). assert (ND2 := NoDup_app_r _ _ ND).
    rewrite in_app_iff in Ht.
    specialize (Htr t c ND1 ltac:(tauto)). set (c1 := exec (tree_moves t tr) c) in *.
    specialize (IH c1 ND2 ltac:(tauto)). set (c2 := exec _ c1) in *.
    destruct Htr as (E1 & U1 & S1). destruct IH as (E2 & U2 & S2).
    repeat split.
    + intros a b H. apply in_app_iff in H as [H|H].
      * (* edge of the first child: done by it, untouched afterwards *)
        rewrite U2; [now apply E1|]. intro Hb. eapply NoDup_app_disj; eauto using edges_dst.
      * (* edge of a later child: its source was not touched by the first child *)
        rewrite (E2 _ _ H). apply U1. intro Ha.
        apply in_flat_map in H as (c0 & Hc0 & H). apply edges_src in H as [->|H]; [tauto|].
        eapply NoDup_app_disj; eauto. apply in_flat_map; eauto.
    + intros u Hu. cbn [flat_map] in Hu. rewrite in_app_iff in Hu. rewrite U2, U1; tauto.
    + (* scratch *)
      unfold scratch_ok in *. cbn [flat_map]. rewrite rev_app_distr.
      destruct (rev (flat_map (backs t) cs)) as [|a' l'] eqn:B2; cbn [app].
      * destruct (rev (backs t tr)); congruence.
      * rewrite S2. apply U1. intro Ha.
        assert (In a' (flat_map (backs t) cs)) as Hin by (apply in_rev; rewrite B2; now left).
        apply in_flat_map in Hin as (c0 & Hc0 & Hin). apply backs_src in Hin as [->|Hin]; [tauto|].
        eapply NoDup_app_disj; eauto. apply in_flat_map; eauto.
Qed.

Lemma tree_exec tr : forall p c, NoDup (nodes tr) -> ~ In p (nodes tr) ->
  tree_post p tr c (exec (tree_moves p tr) c).
Proof.
  induction tr as [|t cs IH] using tree_ind2; intros p c ND Hp.
  - cbn. repeat split; cbn; auto; tauto.
  - cbn [tree_moves nodes edges backs] in *. rewrite exec_app.
    inversion ND as [|? ? Ht ND']; subst.
    destruct (children_exec t cs IH c ND' Ht) as (E & U & S).
    set (c1 := exec _ c) in *. cbn [exec fold_left step].
    assert (t <> p) as Htp by (intro; subst; apply Hp; now left).
    repeat split; cbn [fst snd].
    + intros a b [H|H].
      * inversion H; subst. rewrite upd_same. apply U. intro; apply Hp; now right.
      * assert (b <> t) by (intro; subst; apply Ht; eapply edges_dst_children; eauto).
        rewrite upd_other by auto. now apply E.
    + intros u Hu. assert (u <> t) by (intro; subst; apply Hu; now left).
      rewrite upd_other by auto. apply U. intro; apply Hu; now right.
    + exact S.
Qed.

Definition amap := list (T * list T).
Fixpoint lookup (m : amap) (k : T) : option (list T) :=
  match m with [] => None | (k', ts) :: r => if eqb k k' then Some ts else lookup r k end.
Definition mem (x : T) (l : list T) : bool := existsb (eqb x) l.
Lemma mem_In x l : mem x l = true <-> In x l.
Proof. unfold mem. rewrite existsb_exists. split.
  - intros (y & Hy & E). destruct (eqb_spec x y); congruence.
  - intros H; exists x; split; auto using eqb_refl. Qed.

Fixpoint mapM {A B} (f : A -> option B) (l : list A) : option (list B) :=
  match l with [] => Some [] | x :: r =>
    match f x, mapM f r with Some y, Some ys => Some (y :: ys) | _, _ => None end end.

Fixpoint spanning_tree (fuel : nat) (pm : amap) (r n : T) : option tree :=
  match fuel with O => None | S f =>
    if eqb r n then Some BackEdge else
    match lookup pm n with
    | Some ts => option_map (Node n) (mapM (spanning_tree f pm r) ts)
    | None => Some (Node n [])
    end end.

Inductive root := StartNode (t : T) (cs : list tree).
Definition visited_by (r : root) : list T :=
  match r with StartNode t cs => (if existsb refers_back cs then [t] else []) ++ flat_map nodes cs end.
Definition delete_targets (D : list T) (pm : amap) : amap :=
  map (fun kt => (fst kt, filter (fun t => negb (mem t D)) (snd kt))) pm.
Definition remove1 (k : T) (l : list T) := filter (fun t => negb (eqb t k)) l.

Definition root_for (fuel : nat) (pm : amap) (k : T) : option root :=
  match lookup pm k with
  | None => None
  | Some ts => option_map (StartNode k) (mapM (spanning_tree fuel pm k) (remove1 k ts))
  end.
Fixpoint forest_loop (fuel : nat) (keys : list T) (pm : amap) : option (list root) :=
  match keys with [] => Some [] | k :: ks =>
    match root_for fuel pm k with None => None | Some r =>
      match forest_loop fuel ks (delete_targets (visited_by r) pm) with
      | None => None | Some rs => Some (r :: rs) end end end.
Definition spanning_forest (fuel : nat) (A : amap) := forest_loop fuel (map fst A) A.

Definition root_moves (r : root) : list pinstr :=
  match r with StartNode t cs =>
    flat_map (tree_moves t) cs ++ (if existsb refers_back cs then [Restore t] else []) end.
Definition parallel_moves (fuel : nat) (A : amap) : option (list pinstr) :=
  option_map (flat_map root_moves) (spanning_forest fuel A).

Definition edge (pm : amap) (a b : T) : Prop := exists ts, lookup pm a = Some ts /\ In b ts.
Definition indeg1 (pm : amap) : Prop := forall a a' b, edge pm a b -> edge pm a' b -> a = a'.
Definition nodup_targets (pm : amap) : Prop := forall a ts, lookup pm a = Some ts -> NoDup ts.

(* reversed paths: x :: p1 :: p2 ... with edges p1->x, p2->p1, ... *)
Fixpoint rpath (pm : amap) (l : list T) : Prop :=
  match l with
  | x :: ((y :: _) as tl) => edge pm y x /\ rpath pm tl
  | _ => True
  end.
Lemma rpath_cons pm x y l : rpath pm (x :: y :: l) <-> edge pm y x /\ rpath pm (y :: l).
Proof. reflexivity. Qed.
Lemma rpath_app_r pm l1 l2 : rpath pm (l1 ++ l2) -> rpath pm l2.
Proof. induction l1 as [|x l1 IH]; cbn [app]; auto. destruct l1 as [|y l1]; cbn [app] in *.
  - destruct l2; cbn; tauto.
  - intros [_ H]. auto. Qed.
Lemma rpath_app_l pm l1 l2 : rpath pm (l1 ++ l2) -> rpath pm l1.
Proof. induction l1 as [|x l1 IH]; cbn [app]; [cbn; auto|]. destruct l1 as [|y l1]; cbn [app] in *; [cbn; auto|].
  intros [E H]. split; auto. Qed.
Lemma rpath_join pm l1 x l2 : rpath pm (l1 ++ [x]) -> rpath pm (x :: l2) -> rpath pm (l1 ++ x :: l2).
Proof. induction l1 as [|a l1 IH]; cbn [app]; auto. destruct l1 as [|b l1]; cbn [app] in *.
  - intros [E _] H. split; auto.
  - intros [E H1] H2. split; auto. Qed.

(* two backward paths from the same node: one extends the other *)
Lemma rpath_prefix pm (ID : indeg1 pm) x : forall l1 l2, rpath pm (x :: l1) -> rpath pm (x :: l2) ->
  length l1 <= length l2 -> exists l3, l2 = l1 ++ l3.
Proof.
  intros l1; revert x; induction l1 as [|y l1 IH]; intros x l2 H1 H2 L; [eexists; reflexivity|].
  destruct l2 as [|y' l2]; cbn in L; [lia|].
  destruct H1 as [E1 H1], H2 as [E2 H2]. assert (y = y') by (eapply ID; eauto). subst y'.
  destruct (IH y l2 H1 H2 ltac:(lia)) as (l3 & ->). eexists; reflexivity.
Qed.

(* a node that has a backward path to r (r only at the end) is not on a cycle avoiding r *)
Lemma no_cycle pm (ID : indeg1 pm) r : forall s n,
  rpath pm (n :: s ++ [r]) -> ~ In r (n :: s) ->
  forall l, rpath pm (n :: l ++ [n]) -> ~ In r (n :: l) -> False.
Proof.
  induction s as [|q s IH]; intros n HR Hr l HC Hl.
  - cbn [app] in HR. destruct HR as [E _].
    destruct l as [|c l]; cbn [app] in HC; destruct HC as [E' _].
    + assert (r = n) by (eapply ID; eauto). subst. apply Hr; now left.
    + assert (r = c) by (eapply ID; eauto). subst. apply Hl; right; now left.
  - cbn [app] in HR. destruct HR as [E HR].
    assert (~ In r (q :: s)) as Hq by (intro; apply Hr; now right).
    destruct l as [|c l]; cbn [app] in HC.
    + destruct HC as [E' _]. assert (q = n) by (eapply ID; eauto). subst q.
      apply (IH n HR Hq []); cbn; auto. 
    + destruct HC as [E' HC]. assert (q = c) by (eapply ID; eauto). subst c.
      apply (IH q HR Hq (l ++ [n])).
      * rewrite <- app_assoc. apply (rpath_join pm (q :: l) n [q]); [exact HC|cbn; auto].
      * intros [H|H]; [apply Hq; now left|]. apply in_app_iff in H as [H|[H|[]]].
        -- apply Hl; right; now right.
        -- subst. apply Hl; now left.
Qed.

Lemma snoc_cases {A} (l : list A) : l = [] \/ exists l' a, l = l' ++ [a].
Proof. induction l as [|x l IH] using rev_ind; [now left|right; eauto]. Qed.

(* desc n x c :  x :: c  is a backward path from x up to n, never touching r *)
Inductive desc (pm : amap) (r n : T) : T -> list T -> Prop :=
| desc_refl : n <> r -> desc pm r n n []
| desc_step x y c : desc pm r n y c -> edge pm y x -> x <> r -> desc pm r n x (y :: c).

Lemma desc_rpath pm r n x c : desc pm r n x c -> rpath pm (x :: c).
Proof. induction 1; cbn; auto. Qed.
Lemma desc_avoid pm r n x c : desc pm r n x c -> ~ In r (x :: c).
Proof. induction 1; cbn in *; intuition congruence. Qed.
Lemma desc_shape pm r n x c : desc pm r n x c -> (c = [] /\ x = n) \/ exists c', c = c' ++ [n].
Proof. induction 1 as [|x y c H IH E Hx]; [now left|]. right.
  destruct IH as [[-> ->]|(c' & ->)]; [exists []; reflexivity|exists (y :: c'); reflexivity]. Qed.
Lemma desc_snoc pm r t n x c : desc pm r t x c -> edge pm n t -> n <> r -> desc pm r n x (c ++ [n]).
Proof. induction 1 as [Ht|x y c H IH E Hx]; intros En Hn; cbn [app].
  - apply desc_step; [now apply desc_refl|assumption|assumption].
  - apply desc_step; auto. Qed.

Lemma mapM_Forall2 {A B} (f : A -> option B) l ys : mapM f l = Some ys -> Forall2 (fun x y => f x = Some y) l ys.
Proof. revert ys; induction l as [|x l IH]; cbn; intros ys H; [inversion H; constructor|].
  destruct (f x) eqn:E; [|discriminate]. destruct (mapM f l); [|discriminate]. inversion H; subst. constructor; auto. Qed.

(* every node of a spanning tree hangs below its top node *)
Lemma st_nodes_desc pm r : forall fuel n tr, spanning_tree fuel pm r n = Some tr ->
  forall x, In x (nodes tr) -> exists c, desc pm r n x c.
Proof.
  induction fuel as [|f IH]; intros n tr H x Hx; [discriminate|]. cbn in H.
  destruct (eqb_spec r n) as [->|Hrn]; [inversion H; subst; contradiction|].
  destruct (lookup pm n) as [ts|] eqn:L.
  - destruct (mapM (spanning_tree f pm r) ts) as [cs|] eqn:M; [|discriminate]. inversion H; subst; clear H.
    destruct Hx as [->|Hx]; [exists []; constructor; congruence|].
    apply in_flat_map in Hx as (c0 & Hc0 & Hx).
    apply mapM_Forall2 in M.
    assert (exists t, In t ts /\ spanning_tree f pm r t = Some c0) as (t & Ht & Hst).
    { clear -M Hc0. induction M; cbn in *; [tauto|]. destruct Hc0 as [->|Hc0]; [eauto|].
      destruct (IHM Hc0) as (t & ? & ?); eauto. }
    destruct (IH _ _ Hst _ Hx) as (c & Hc).
    exists (c ++ [n]). apply (desc_snoc pm r t n x c Hc); [exists ts; auto|congruence].
  - inversion H; subst. destruct Hx as [->|[]]. exists []; constructor; congruence.
Qed.

(* a node with a root path is not its own strict descendant *)
Lemma not_own_desc pm (ID : indeg1 pm) r n s t c :
  rpath pm (n :: s ++ [r]) -> ~ In r (n :: s) -> edge pm n t -> desc pm r t n c -> False.
Proof.
  intros HR Hr E D.
  assert (A := desc_avoid _ _ _ _ _ D). assert (P := desc_rpath _ _ _ _ _ D).
  destruct (desc_shape _ _ _ _ _ D) as [[-> Ent]|(c' & ->)].
  - subst t. apply (no_cycle pm ID r s n HR Hr []); cbn; auto.
  - apply (no_cycle pm ID r s n HR Hr (c' ++ [t])).
    + rewrite <- app_assoc. apply (rpath_join pm (n :: c') t [n]); [exact P|cbn; auto].
    + exact A.
Qed.

(* two different children of n have disjoint descendants *)
Lemma children_disjoint pm (ID : indeg1 pm) r n s t1 t2 x c1 c2 :
  rpath pm (n :: s ++ [r]) -> ~ In r (n :: s) -> edge pm n t1 -> edge pm n t2 -> t1 <> t2 ->
  desc pm r t1 x c1 -> desc pm r t2 x c2 -> length c1 <= length c2 -> False.
Proof.
  intros HR Hr E1 E2 Ht D1 D2 L.
  destruct (rpath_prefix pm ID x c1 c2 (desc_rpath _ _ _ _ _ D1) (desc_rpath _ _ _ _ _ D2) L) as (c3 & ->).
  assert (P2 := desc_rpath _ _ _ _ _ D2). assert (A2 := desc_avoid _ _ _ _ _ D2).
  destruct c3 as [|y c3].
  - (* same chain: same end *)
    rewrite app_nil_r in *.
    destruct (desc_shape _ _ _ _ _ D1) as [[-> ->]|(c' & ->)], (desc_shape _ _ _ _ _ D2) as [[E ->]|(c'' & E)]; try congruence.
    + destruct c''; discriminate.
    + destruct c'; discriminate.
    + apply app_inj_tail in E as [_ ?]; congruence.
  - (* chain 2 continues above t1: the next node is n, so n lies below t2 *)
    assert (y = n /\ rpath pm (n :: c3)) as [-> P3].
    { destruct (desc_shape _ _ _ _ _ D1) as [[-> ->]|(c' & ->)].
      - cbn [app] in P2. destruct P2 as [E P2]. split; [eapply ID; eauto|]. 
        assert (y = n) by (eapply ID; eauto). subst. exact P2.
      - rewrite <- app_assoc in P2. cbn [app] in P2.
        change (x :: c' ++ t1 :: y :: c3) with ((x :: c') ++ t1 :: y :: c3) in P2.
        apply rpath_app_r in P2. destruct P2 as [E P2].
        assert (y = n) by (eapply ID; eauto). subst. auto. }
    assert (~ In r (n :: c3)) as A3.
    { intro H. apply A2. right. apply in_app_iff. right. exact H. }
    destruct (desc_shape _ _ _ _ _ D2) as [[E _]|(c'' & E)]; [destruct c1; discriminate|].
    (* last of c1 ++ n :: c3 is t2 *)
    destruct (snoc_cases c3) as [->|(l4 & z & ->)].
    + change (c1 ++ [n]) with (c1 ++ [n]) in E. apply app_inj_tail in E as [_ ?]. subst t2.
      apply (no_cycle pm ID r s n HR Hr []); cbn; auto.
    + assert (z = t2).
      { change (c1 ++ n :: l4 ++ [z]) with (c1 ++ (n :: l4) ++ [z]) in E. rewrite app_assoc in E.
        apply app_inj_tail in E as [_ ?]; auto. }
      subst z. apply (no_cycle pm ID r s n HR Hr (l4 ++ [t2])).
      * rewrite <- app_assoc. apply (rpath_join pm (n :: l4) t2 [n]); [exact P3|cbn; auto].
      * exact A3.
Qed.

Lemma NoDup_app_intro {A} (l1 l2 : list A) :
  NoDup l1 -> NoDup l2 -> (forall x, In x l1 -> In x l2 -> False) -> NoDup (l1 ++ l2).
Proof. induction l1 as [|a l1 IH]; cbn; intros H1 H2 D; auto. inversion H1; subst.
  constructor; [rewrite in_app_iff; intros [?|?]; [tauto|eapply D; eauto]|apply IH; eauto]. Qed.

Lemma st_top pm r fuel n tr : spanning_tree fuel pm r n = Some tr -> n <> r -> In n (nodes tr).
Proof. destruct fuel; cbn; [discriminate|]. intros H Hn. destruct (eqb_spec r n); [congruence|].
  destruct (lookup pm n); [destruct (mapM _ _); [|discriminate]|]; inversion H; subst; now left. Qed.
Lemma st_root pm r fuel tr : spanning_tree fuel pm r r = Some tr -> tr = BackEdge.
Proof. destruct fuel; cbn; [discriminate|]. rewrite eqb_refl. congruence. Qed.

Lemma in_Forall2_l {A B} (R : A -> B -> Prop) l l' y : Forall2 R l l' -> In y l' -> exists x, In x l /\ R x y.
Proof. induction 1; cbn; [tauto|]. intros [->|H']; [eauto|]. destruct (IHForall2 H') as (z & ? & ?); eauto. Qed.
Lemma in_Forall2_r {A B} (R : A -> B -> Prop) l l' x : Forall2 R l l' -> In x l -> exists y, In y l' /\ R x y.
Proof. induction 1; cbn; [tauto|]. intros [->|H']; [eauto|]. destruct (IHForall2 H') as (z & ? & ?); eauto. Qed.

(* children of one parent: node lists are duplicate free, given pairwise disjointness of descendants *)
Lemma children_nodup pm r f (ts : list T) cs :
  Forall2 (fun t c => spanning_tree f pm r t = Some c) ts cs -> NoDup ts ->
  (forall t c, In t ts -> spanning_tree f pm r t = Some c -> NoDup (nodes c)) ->
  (forall t1 t2 x c1 c2, In t1 ts -> In t2 ts -> t1 <> t2 -> desc pm r t1 x c1 -> desc pm r t2 x c2 -> False) ->
  NoDup (flat_map nodes cs).
Proof.
  induction 1 as [|t c ts cs Hc M IH]; intros ND Hone Hdis; cbn [flat_map]; [constructor|].
  inversion ND as [|? ? Hnin ND']; subst.
  apply NoDup_app_intro.
  - eapply Hone; eauto. now left.
  - apply IH; auto.
    + intros; eapply Hone; eauto. now right.
    + intros t1 t2 x c1 c2 H1 H2; apply Hdis; now right.
  - intros x Hx1 Hx2. apply in_flat_map in Hx2 as (c' & Hc' & Hx2).
    destruct (in_Forall2_l _ _ _ _ M Hc') as (t' & Ht' & Hst').
    destruct (st_nodes_desc _ _ _ _ _ Hc _ Hx1) as (c1 & D1).
    destruct (st_nodes_desc _ _ _ _ _ Hst' _ Hx2) as (c2 & D2).
    apply (Hdis t t' x c1 c2); auto; [now left|now right|]. intros ->. contradiction.
Qed.

Lemma st_nodup pm (ID : indeg1 pm) (NT : nodup_targets pm) r : forall fuel n s tr,
  spanning_tree fuel pm r n = Some tr -> n <> r ->
  rpath pm (n :: s ++ [r]) -> ~ In r (n :: s) -> NoDup (nodes tr).
Proof.
  induction fuel as [|f IH]; intros n s tr H Hn HR Hr; [discriminate|]. cbn in H.
  destruct (eqb_spec r n) as [|_]; [congruence|].
  destruct (lookup pm n) as [ts|] eqn:L; [|inversion H; subst; cbn; constructor; [tauto|constructor]].
  destruct (mapM (spanning_tree f pm r) ts) as [cs|] eqn:M; [|discriminate]. inversion H; subst; clear H.
  apply mapM_Forall2 in M. cbn [nodes].
  assert (forall t, In t ts -> edge pm n t) as Hedge by (intros; exists ts; auto).
  constructor.
  - intros Hin. apply in_flat_map in Hin as (c0 & Hc0 & Hin).
    destruct (in_Forall2_l _ _ _ _ M Hc0) as (t & Ht & Hst).
    destruct (st_nodes_desc _ _ _ _ _ Hst _ Hin) as (c & D).
    eapply not_own_desc; eauto.
  - eapply children_nodup; eauto.
    + intros t c Ht Hst. destruct (eqb_spec t r) as [->|Htr].
      * apply st_root in Hst. subst. constructor.
      * apply (IH t (n :: s) c Hst Htr).
        -- cbn [app]. split; auto.
        -- intros [?|?]; [congruence|tauto].
    + intros t1 t2 x c1 c2 H1 H2 Hne D1 D2.
      destruct (le_ge_dec (length c1) (length c2)).
      * eapply (children_disjoint pm ID r n s t1 t2); eauto.
      * eapply (children_disjoint pm ID r n s t2 t1); eauto.
Qed.

Lemma tree_exec_all cs : Forall (fun tr => forall p c, NoDup (nodes tr) -> ~ In p (nodes tr) ->
                                tree_post p tr c (exec (tree_moves p tr) c)) cs.
Proof. apply Forall_forall; intros; now apply tree_exec. Qed.

Lemma refers_back_backs tr p : refers_back tr = true <-> backs p tr <> [].
Proof.
  revert p; induction tr as [|t cs IH] using tree_ind2; intros p; cbn; [split; [discriminate|auto]|].
  rewrite existsb_exists. rewrite Forall_forall in IH. split.
  - intros (c & Hc & H). apply (IH c Hc t) in H. intro E. apply H.
    destruct (backs t c) eqn:B; auto. exfalso.
    assert (In t0 (flat_map (backs t) cs)) by (apply in_flat_map; exists c; split; auto; rewrite B; now left).
    rewrite E in H0; contradiction.
  - intros H. destruct (flat_map (backs t) cs) as [|a l] eqn:E; [congruence|].
    assert (In a (flat_map (backs t) cs)) as Hin by (rewrite E; now left).
    apply in_flat_map in Hin as (c & Hc & Hin). exists c; split; auto. apply (IH c Hc t). intro B; rewrite B in Hin; contradiction.
Qed.
Lemma existsb_backs t cs : existsb refers_back cs = true <-> flat_map (backs t) cs <> [].
Proof. apply (refers_back_backs (Node t cs) t). Qed.

Lemma root_exec k cs c : NoDup (flat_map nodes cs) -> ~ In k (flat_map nodes cs) ->
  let c' := exec (root_moves (StartNode k cs)) c in
  (forall a b, In (a, b) (flat_map (edges k) cs) -> fst c' b = fst c a) /\
  (forall a, hd_error (rev (flat_map (backs k) cs)) = Some a -> fst c' k = fst c a) /\
  (forall u, ~ In u (flat_map nodes cs) -> (u <> k \/ flat_map (backs k) cs = []) -> fst c' u = fst c u).
Proof.
  intros ND Hk. cbn [root_moves]. rewrite exec_app.
  destruct (children_exec k cs (tree_exec_all cs) c ND Hk) as (E & U & S).
  set (c1 := exec _ c) in *. unfold scratch_ok in S.
  destruct (existsb refers_back cs) eqn:RB.
  - apply existsb_backs with (t := k) in RB. cbn [exec fold_left step fst snd]. repeat split.
    + intros a b H. assert (b <> k) by (intro; subst; apply Hk; eapply edges_dst_children; eauto).
      rewrite upd_other by auto. now apply E.
    + intros a Ha. rewrite upd_same. destruct (rev (flat_map (backs k) cs)); cbn in Ha; [discriminate|].
      inversion Ha; subst. exact S.
    + intros u Hu [Hne|Hb]; [|congruence]. rewrite upd_other by auto. now apply U.
  - assert (flat_map (backs k) cs = []) as B.
    { destruct (flat_map (backs k) cs) eqn:B; auto. exfalso.
      assert (existsb refers_back cs = true) by (apply (existsb_backs k); congruence). congruence. }
    cbn [exec fold_left]. repeat split.
    + exact E.
    + rewrite B; cbn; discriminate.
    + intros u Hu _. now apply U.
Qed.

Lemma lookup_edge pm n ts b : lookup pm n = Some ts -> In b ts -> edge pm n b.
Proof. intros; exists ts; auto. Qed.
Lemma edge_lookup pm n ts b : lookup pm n = Some ts -> edge pm n b -> In b ts.
Proof. intros L (ts' & L' & H). congruence. Qed.

Lemma st_complete pm r : forall fuel n tr, spanning_tree fuel pm r n = Some tr ->
  forall a b, In a (nodes tr) -> edge pm a b -> b = r \/ In b (nodes tr).
Proof.
  induction fuel as [|f IH]; intros n tr H a b Ha E; [discriminate|]. cbn in H.
  destruct (eqb_spec r n) as [|_]; [inversion H; subst; contradiction|].
  destruct (lookup pm n) as [ts|] eqn:L.
  - destruct (mapM (spanning_tree f pm r) ts) as [cs|] eqn:M; [|discriminate]. inversion H; subst; clear H.
    apply mapM_Forall2 in M. cbn [nodes] in *. destruct Ha as [->|Ha].
    + pose proof (edge_lookup _ _ _ _ L E) as Hb.
      destruct (in_Forall2_r _ _ _ _ M Hb) as (cb & Hcb & Hst).
      destruct (eqb_spec b r) as [->|Hbr]; [now left|]. right; right.
      apply in_flat_map. exists cb; split; auto. eapply st_top; eauto.
    + apply in_flat_map in Ha as (c0 & Hc0 & Ha).
      destruct (in_Forall2_l _ _ _ _ M Hc0) as (t & Ht & Hst).
      destruct (IH _ _ Hst _ _ Ha E) as [->|Hb]; [now left|]. right; right. apply in_flat_map; eauto.
  - inversion H; subst. destruct Ha as [->|[]]. destruct E as (ts & L' & _). congruence.
Qed.

Lemma st_edges pm r : forall fuel n tr p, spanning_tree fuel pm r n = Some tr -> edge pm p n ->
  (forall a b, In (a, b) (edges p tr) -> edge pm a b) /\ (forall a, In a (backs p tr) -> edge pm a r).
Proof.
  induction fuel as [|f IH]; intros n tr p H Ep; [discriminate|]. cbn in H.
  destruct (eqb_spec r n) as [->|_].
  { inversion H; subst. cbn. split; [tauto|]. intros a [->|[]]; auto. }
  destruct (lookup pm n) as [ts|] eqn:L.
  - destruct (mapM (spanning_tree f pm r) ts) as [cs|] eqn:M; [|discriminate]. inversion H; subst; clear H.
    apply mapM_Forall2 in M. cbn [edges backs]. split.
    + intros a b [Hab|Hab]; [inversion Hab; subst; auto|].
      apply in_flat_map in Hab as (c0 & Hc0 & Hab).
      destruct (in_Forall2_l _ _ _ _ M Hc0) as (t & Ht & Hst).
      eapply (proj1 (IH _ _ n Hst (lookup_edge _ _ _ _ L Ht))); eauto.
    + intros a Ha. apply in_flat_map in Ha as (c0 & Hc0 & Ha).
      destruct (in_Forall2_l _ _ _ _ M Hc0) as (t & Ht & Hst).
      eapply (proj2 (IH _ _ n Hst (lookup_edge _ _ _ _ L Ht))); eauto.
  - inversion H; subst. cbn. split; [|tauto]. intros a b [Hab|[]]. inversion Hab; subst; auto.
Qed.

Lemma nodes_have_edges tr : forall p b, In b (nodes tr) -> exists a, In (a, b) (edges p tr).
Proof.
  induction tr as [|t cs IH] using tree_ind2; intros p b Hb; cbn in *; [contradiction|].
  destruct Hb as [->|Hb]; [exists p; now left|].
  apply in_flat_map in Hb as (c0 & Hc0 & Hb). rewrite Forall_forall in IH.
  destruct (IH c0 Hc0 t b Hb) as (a & Ha). exists a. right. apply in_flat_map; eauto.
Qed.

Lemma remove1_In k l x : In x (remove1 k l) <-> In x l /\ x <> k.
Proof. unfold remove1. rewrite filter_In. destruct (eqb_spec x k); cbn; intuition congruence. Qed.
Lemma NoDup_filter {A} (f : A -> bool) l : NoDup l -> NoDup (filter f l).
Proof. induction 1; cbn; [constructor|]. destruct (f x); auto. constructor; auto. rewrite filter_In; tauto. Qed.

Lemma root_children_disjoint pm (ID : indeg1 pm) r t1 t2 x c1 c2 :
  edge pm r t1 -> t1 <> t2 -> desc pm r t1 x c1 -> desc pm r t2 x c2 -> length c1 <= length c2 -> False.
Proof.
  intros E1 Ht D1 D2 L.
  destruct (rpath_prefix pm ID x c1 c2 (desc_rpath _ _ _ _ _ D1) (desc_rpath _ _ _ _ _ D2) L) as (c3 & ->).
  assert (P2 := desc_rpath _ _ _ _ _ D2). assert (A2 := desc_avoid _ _ _ _ _ D2).
  destruct c3 as [|y c3].
  - rewrite app_nil_r in *.
    destruct (desc_shape _ _ _ _ _ D1) as [[-> ->]|(c' & ->)], (desc_shape _ _ _ _ _ D2) as [[E ->]|(c'' & E)]; try congruence.
    + destruct c''; discriminate.
    + destruct c'; discriminate.
    + apply app_inj_tail in E as [_ ?]; congruence.
  - assert (y = r).
    { destruct (desc_shape _ _ _ _ _ D1) as [[-> ->]|(c' & ->)].
      - cbn [app] in P2. destruct P2 as [E _]. eapply ID; eauto.
      - rewrite <- app_assoc in P2. cbn [app] in P2.
        change (x :: c' ++ t1 :: y :: c3) with ((x :: c') ++ t1 :: y :: c3) in P2.
        apply rpath_app_r in P2. destruct P2 as [E _]. eapply ID; eauto. }
    subst y. apply A2. right. apply in_app_iff. right. now left.
Qed.

Lemma root_for_inv fuel pm k r : root_for fuel pm k = Some r ->
  exists ts cs, lookup pm k = Some ts /\
    Forall2 (fun t c => spanning_tree fuel pm k t = Some c) (remove1 k ts) cs /\ r = StartNode k cs.
Proof.
  unfold root_for. destruct (lookup pm k) as [ts|]; [|discriminate].
  destruct (mapM _ _) as [cs|] eqn:M; [|discriminate]. intros [= <-].
  exists ts, cs. split; [reflexivity|]. split; [apply mapM_Forall2; exact M|reflexivity].
Qed.
Lemma root_for_spec pm (ID : indeg1 pm) (NT : nodup_targets pm) fuel k cs :
  root_for fuel pm k = Some (StartNode k cs) ->
  NoDup (flat_map nodes cs) /\ ~ In k (flat_map nodes cs) /\
  (forall a b, In (a, b) (flat_map (edges k) cs) -> edge pm a b) /\
  (forall a, In a (flat_map (backs k) cs) -> edge pm a k) /\
  (forall b, edge pm k b -> b = k \/ In b (flat_map nodes cs)) /\
  (forall a b, In a (flat_map nodes cs) -> edge pm a b -> b = k \/ In b (flat_map nodes cs)).
Proof.
  intros R. destruct (root_for_inv _ _ _ _ R) as (ts & cs' & L & M & [= <-]). clear R.
  assert (forall t, In t (remove1 k ts) -> edge pm k t /\ t <> k) as Hts.
  { intros t Ht. apply remove1_In in Ht as [? ?]. split; auto. exists ts; auto. }
  repeat split.
  - eapply children_nodup; eauto.
    + apply NoDup_filter. eauto.
    + intros t c Ht Hst. destruct (Hts t Ht) as [E Hne].
      apply (st_nodup pm ID NT k fuel t [] c Hst Hne); cbn; auto. intros [?|[]]; congruence.
    + intros t1 t2 x c1 c2 H1 H2 Hne D1 D2. destruct (Hts t1 H1) as [E1 _], (Hts t2 H2) as [E2 _].
      destruct (le_ge_dec (length c1) (length c2)).
      * eapply (root_children_disjoint pm ID k t1 t2); eauto.
      * eapply (root_children_disjoint pm ID k t2 t1); eauto.
  - intros Hin. apply in_flat_map in Hin as (c0 & Hc0 & Hin).
    destruct (in_Forall2_l _ _ _ _ M Hc0) as (t & Ht & Hst).
    destruct (st_nodes_desc _ _ _ _ _ Hst _ Hin) as (c & D). apply (desc_avoid _ _ _ _ _ D). now left.
  - intros a b Hab. apply in_flat_map in Hab as (c0 & Hc0 & Hab).
    destruct (in_Forall2_l _ _ _ _ M Hc0) as (t & Ht & Hst).
    eapply (proj1 (st_edges pm k _ _ _ k Hst (proj1 (Hts t Ht)))); eauto.
  - intros a Ha. apply in_flat_map in Ha as (c0 & Hc0 & Ha).
    destruct (in_Forall2_l _ _ _ _ M Hc0) as (t & Ht & Hst).
    eapply (proj2 (st_edges pm k _ _ _ k Hst (proj1 (Hts t Ht)))); eauto.
  - intros b E. destruct (eqb_spec b k) as [|Hne]; [now left|]. right.
    assert (In b (remove1 k ts)) as Hb by (apply remove1_In; split; auto; eapply edge_lookup; eauto).
    destruct (in_Forall2_r _ _ _ _ M Hb) as (cb & Hcb & Hst).
    apply in_flat_map. exists cb; split; auto. eapply st_top; eauto.
  - intros a b Ha E. apply in_flat_map in Ha as (c0 & Hc0 & Ha).
    destruct (in_Forall2_l _ _ _ _ M Hc0) as (t & Ht & Hst).
    destruct (st_complete pm k _ _ _ Hst _ _ Ha E) as [->|Hb]; [now left|]. right. apply in_flat_map; eauto.
Qed.

Lemma lookup_delete D pm a : lookup (delete_targets D pm) a = option_map (filter (fun t => negb (mem t D))) (lookup pm a).
Proof. induction pm as [|[k ts] pm IH]; cbn; auto. destruct (eqb a k); auto. Qed.
Lemma edge_delete D pm a b : edge (delete_targets D pm) a b <-> edge pm a b /\ ~ In b D.
Proof.
  unfold edge. rewrite lookup_delete. split.
  - intros (ts & L & H). destruct (lookup pm a) as [ts0|]; [|discriminate]. inversion L; subst.
    apply filter_In in H as [H1 H2]. split; [eauto|]. intro HD. apply mem_In in HD. rewrite HD in H2. discriminate.
  - intros ((ts & L & H) & HD). rewrite L. eexists; split; [reflexivity|]. apply filter_In. split; auto.
    destruct (mem b D) eqn:Mb; auto. apply mem_In in Mb. contradiction.
Qed.
Lemma lookup_keys pm a ts : lookup pm a = Some ts -> In a (map fst pm).
Proof. induction pm as [|[k t] pm IH]; cbn; [discriminate|]. destruct (eqb_spec a k); auto. Qed.

Lemma st_backs_in_nodes pm r : forall fuel n tr p, spanning_tree fuel pm r n = Some tr -> n <> r ->
  forall a, In a (backs p tr) -> In a (nodes tr).
Proof.
  induction fuel as [|f IH]; intros n tr p H Hn a Ha; [discriminate|]. cbn in H.
  destruct (eqb_spec r n) as [|_]; [congruence|].
  destruct (lookup pm n) as [ts|] eqn:L; [|inversion H; subst; cbn in Ha; contradiction].
  destruct (mapM (spanning_tree f pm r) ts) as [cs|] eqn:M; [|discriminate]. inversion H; subst; clear H.
  apply mapM_Forall2 in M. cbn [backs nodes] in *.
  apply in_flat_map in Ha as (c0 & Hc0 & Ha).
  destruct (in_Forall2_l _ _ _ _ M Hc0) as (t & Ht & Hst).
  destruct (eqb_spec t r) as [->|Htr].
  - apply st_root in Hst. subst c0. destruct Ha as [->|[]]. now left.
  - right. apply in_flat_map. exists c0; split; auto. eapply IH; eauto.
Qed.

Lemma st_back_complete pm r : forall fuel n tr p, spanning_tree fuel pm r n = Some tr ->
  forall a, In a (nodes tr) -> edge pm a r -> In a (backs p tr).
Proof.
  induction fuel as [|f IH]; intros n tr p H a Ha E; [discriminate|]. cbn in H.
  destruct (eqb_spec r n) as [|_]; [inversion H; subst; contradiction|].
  destruct (lookup pm n) as [ts|] eqn:L.
  - destruct (mapM (spanning_tree f pm r) ts) as [cs|] eqn:M; [|discriminate]. inversion H; subst; clear H.
    apply mapM_Forall2 in M. cbn [backs nodes] in *. destruct Ha as [->|Ha].
    + pose proof (edge_lookup _ _ _ _ L E) as Hr.
      destruct (in_Forall2_r _ _ _ _ M Hr) as (cb & Hcb & Hst). apply st_root in Hst. subst cb.
      apply in_flat_map. exists BackEdge; split; auto. now left.
    + apply in_flat_map in Ha as (c0 & Hc0 & Ha).
      destruct (in_Forall2_l _ _ _ _ M Hc0) as (t & Ht & Hst).
      apply in_flat_map. exists c0; split; auto. eapply IH; eauto.
  - inversion H; subst. destruct Ha as [->|[]]. destruct E as (ts & L' & _). congruence.
Qed.

Lemma root_for_backs pm fuel k cs : root_for fuel pm k = Some (StartNode k cs) ->
  (forall a, In a (flat_map (backs k) cs) -> In a (flat_map nodes cs)) /\
  (forall a, In a (flat_map nodes cs) -> edge pm a k -> In a (flat_map (backs k) cs)).
Proof.
  intros R. destruct (root_for_inv _ _ _ _ R) as (ts & cs' & _ & M & [= <-]).
  split; intros a Ha; [|intros Ek]; apply in_flat_map in Ha as (c0 & Hc0 & Ha);
    destruct (in_Forall2_l _ _ _ _ M Hc0) as (t & Ht & Hst); apply in_flat_map; exists c0; (split; [exact Hc0|]).
  - apply remove1_In in Ht as [_ Htk]. eapply st_backs_in_nodes; eauto.
  - eapply st_back_complete; eauto.
Qed.

Lemma edge_dec pm a b : {edge pm a b} + {~ edge pm a b}.
Proof.
  unfold edge. destruct (lookup pm a) as [ts|] eqn:L.
  - destruct (mem b ts) eqn:Mb.
    + left. exists ts; split; auto. now apply mem_In.
    + right. intros (ts' & L' & H). inversion L'; subst. apply mem_In in H. congruence.
  - right. intros (ts' & L' & _). discriminate.
Qed.
Lemma In_decT (x : T) l : {In x l} + {~ In x l}.
Proof. destruct (mem x l) eqn:Mx; [left; now apply mem_In|right; intro H; apply mem_In in H; congruence]. Qed.

Section Forest.
Variable A : amap.
Hypothesis IDA : indeg1 A.
Variable st0 : T -> V.

(* The loop invariant of forest_loop: pm holds the moves still to do (part of A, targets duplicate-free), c is the state
   reached.  Sources of pending moves still hold their initial value; the target of a move of A that is no longer pending
   holds the initial value of its source; what no move of A targets is untouched; a pending move between different
   nodes has its source among the keys still to visit. *)
Lemma forest_inv fuel : forall keys pm rs c,
   (forall a b, edge pm a b -> edge A a b) ->
   nodup_targets pm ->
   (forall a b, edge pm a b -> fst c a = st0 a) ->
   (forall a b, edge A a b -> ~ edge pm a b -> fst c b = st0 a) ->
   (forall u, (forall a, ~ edge A a u) -> fst c u = st0 u) ->
   (forall a b, edge pm a b -> a <> b -> In a keys) ->
   forest_loop fuel keys pm = Some rs ->
   let c' := exec (flat_map root_moves rs) c in
   (forall a b, edge A a b -> fst c' b = st0 a) /\ (forall u, (forall a, ~ edge A a u) -> fst c' u = st0 u).
Proof.
  induction keys as [|k ks IH]; intros pm rs c Sub NT I2 I3 I4 K H.
  - inversion H; subst. cbn. split; auto. intros a b E.
    destruct (edge_dec pm a b) as [Ep|Ep]; [|now apply I3].
    destruct (eqb_spec a b) as [->|Hne]; [eapply I2; eauto|]. destruct (K _ _ Ep Hne).
  - cbn [forest_loop] in H. destruct (root_for fuel pm k) as [r|] eqn:R; [|discriminate].
    destruct (forest_loop fuel ks _) as [rs'|] eqn:F; [|discriminate]. inversion H; subst; clear H.
    assert (indeg1 pm) as ID by (intros a a' b E1 E2; eapply IDA; eauto).
    destruct (root_for_inv _ _ _ _ R) as (_ & cs & _ & _ & ->).
    destruct (root_for_spec pm ID NT fuel k cs R) as (ND & Hk & HE & HB & HCk & HCn).
    cbn [flat_map]. rewrite exec_app.
    destruct (root_exec k cs c ND Hk) as (X1 & X2 & X3). set (c1 := exec (root_moves (StartNode k cs)) c) in *.
    set (N := flat_map nodes cs) in *. set (B := flat_map (backs k) cs) in *. set (E := flat_map (edges k) cs) in *.
    assert (HD : forall x, In x (visited_by (StartNode k cs)) <-> (x = k /\ B <> []) \/ In x N).
    { intros x. cbn [visited_by]. rewrite in_app_iff. fold N. destruct (existsb refers_back cs) eqn:RB.
      - apply (existsb_backs k) in RB. fold B in RB. cbn. clear - RB. intuition congruence.
      - assert (B = []). { destruct B eqn:EB; auto. exfalso. assert (existsb refers_back cs = true) by (apply (existsb_backs k); fold B; congruence). congruence. }
        cbn. clear - H. intuition congruence. }
    destruct (root_for_backs _ _ _ _ R) as (HBN & HBC). fold N B in HBN, HBC.
    assert (HNE : forall b, In b N -> exists a, In (a, b) E).
    { intros b Hb. unfold N in Hb. apply in_flat_map in Hb as (c0 & Hc0 & Hb).
      destruct (nodes_have_edges c0 k b Hb) as (a & Ha). exists a. apply in_flat_map; eauto. }
    assert (Bdec : B = [] \/ B <> []) by (destruct B; [now left|right; discriminate]).
    set (pm' := delete_targets (visited_by (StartNode k cs)) pm) in *.
    assert (Ed : forall a b, edge pm' a b <-> edge pm a b /\ ~ ((b = k /\ B <> []) \/ In b N)).
    { intros a b. unfold pm'. rewrite edge_delete, HD. reflexivity. }
    (* the scratch/back clause, usable form *)
    assert (XB : B <> [] -> forall a, edge pm a k -> fst c1 k = fst c a).
    { intros HBne a Ea. destruct (rev B) as [|a' l] eqn:RB.
      - exfalso. apply HBne. rewrite <- (rev_involutive B), RB. reflexivity.
      - assert (In a' B) by (apply in_rev; rewrite RB; now left).
        assert (a' = a) by (eapply ID; eauto). subst a'. apply X2. reflexivity. }
    apply (IH pm' rs' c1); auto.
    + intros a b Hab. apply Ed in Hab. apply Sub, Hab.
    + intros a ts L. unfold pm' in L. rewrite lookup_delete in L. destruct (lookup pm a) as [ts0|] eqn:L0; [|discriminate].
      inversion L; subst. apply NoDup_filter. eauto.
    + (* pending sources are pristine *)
      intros a b Hab. apply Ed in Hab as [Eab Hb]. rewrite <- (I2 _ _ Eab). apply X3.
      * intro Ha. destruct (HCn _ _ Ha Eab) as [->|?]; [|tauto].
        apply Hb. left. split; auto. intro HBe. pose proof (HBC _ Ha Eab) as Hin. rewrite HBe in Hin. contradiction.
      * destruct Bdec as [?|HBne]; [now right|]. left. intros ->.
        destruct (HCk _ Eab) as [->|?]; [|tauto]. apply Hb. left; split; auto.
    + (* performed moves stay performed *)
      intros a b EA Hn'. destruct (edge_dec pm a b) as [Ep|Ep].
      * assert ((b = k /\ B <> []) \/ In b N) as [[-> HBne]|Hb].
        { destruct (In_decT b N) as [?|Hn]; [now right|]. destruct Bdec as [HBe|HBne].
          - exfalso. apply Hn'. apply Ed. split; auto. intros [[_ ?]|?]; tauto.
          - destruct (eqb_spec b k) as [->|Hne]; [left; split; auto|].
            exfalso. apply Hn'. apply Ed. split; auto. intros [[? _]|?]; tauto. }
        -- rewrite (XB HBne a Ep). eapply I2; eauto.
        -- destruct (HNE _ Hb) as (a' & Ha'). assert (a' = a) by (eapply ID; eauto). subst a'.
           rewrite (X1 _ _ Ha'). eapply I2; eauto.
      * rewrite <- (I3 _ _ EA Ep). apply X3.
        -- intro Hb. destruct (HNE _ Hb) as (a' & Ha'). apply HE in Ha'.
           assert (a' = a) by (eapply IDA; eauto). subst a'. contradiction.
        -- destruct Bdec as [?|HBne]; [now right|]. left. intros ->.
           destruct B as [|a' B'] eqn:EB; [congruence|]. assert (In a' B) as Hin by (rewrite EB; now left).
           rewrite EB in *. apply HB in Hin. assert (a' = a) by (eapply IDA; eauto). subst a'. contradiction.
    + (* non-targets untouched *)
      intros u Hu. rewrite <- (I4 u Hu). apply X3.
      * intro Hb. destruct (HNE _ Hb) as (a' & Ha'). apply HE in Ha'. eapply Hu; eauto.
      * destruct B as [|a' B'] eqn:EB; [now right|]. left. intros ->.
        assert (In a' (a' :: B')) as Hin by now left. apply HB in Hin. eapply Hu; eauto.
    + intros a b Hab Hne. apply Ed in Hab as [Eab Hb]. destruct (K _ _ Eab Hne) as [<-|?]; auto.
      destruct (HCk _ Eab) as [->|?]; [congruence|tauto].
Qed.
End Forest.

Theorem parallel_moves_correct fuel (A : amap) is (st0 : T -> V) (sc0 : V) :
  indeg1 A -> nodup_targets A ->
  parallel_moves fuel A = Some is ->
  let c' := exec is (st0, sc0) in
  (forall a b, edge A a b -> fst c' b = st0 a) /\ (forall u, (forall a, ~ edge A a u) -> fst c' u = st0 u).
Proof.
  intros ID NT H. unfold parallel_moves, spanning_forest in H.
  destruct (forest_loop fuel (map fst A) A) as [rs|] eqn:F; [|discriminate]. inversion H; subst.
  apply (forest_inv A ID st0 fuel (map fst A) A rs (st0, sc0)); auto.
  - intros a b E Hn. contradiction.
  - intros a b (ts & L & _) _. eapply lookup_keys; eauto.
Qed.

(* termination: the fuel that parallel_moves runs with is enough *)
Definition all_targets (pm : amap) : list T := flat_map snd pm.
Lemma edge_all_targets pm a b : edge pm a b -> In b (all_targets pm).
Proof. intros (ts & L & H). induction pm as [|[k t] pm IH]; cbn in *; [discriminate|].
  apply in_app_iff. destruct (eqb a k); [inversion L; subst; now left|right; auto]. Qed.

Lemma mapM_some {A B} (f : A -> option B) l : (forall x, In x l -> f x <> None) -> mapM f l <> None.
Proof. induction l as [|x l IH]; cbn; intros H; [discriminate|].
  destruct (f x) eqn:E; [|exfalso; eapply H; eauto].
  destruct (mapM f l) eqn:M; [discriminate|]. exfalso. apply IH; auto. Qed.

(* the ancestors of a node (its backward path to r) never repeat *)
Lemma fresh_child pm (ID : indeg1 pm) r n s t :
  rpath pm (n :: s ++ [r]) -> ~ In r (n :: s) -> edge pm n t -> ~ In t (n :: s).
Proof.
  intros HR Hr E Hin. apply in_split in Hin as (l1 & l2 & Hs).
  change (n :: s ++ [r]) with ((n :: s) ++ [r]) in HR. rewrite Hs in HR, Hr.
  rewrite <- app_assoc in HR. cbn [app] in HR.
  assert (rpath pm (t :: l2 ++ [r])) as HRt by (eapply rpath_app_r; eauto).
  assert (~ In r (t :: l2)) as Hrt by (intro; apply Hr; apply in_app_iff; now right).
  assert (~ In r (t :: l1)) as Hrl.
  { intros [->|H]; [apply Hr; apply in_app_iff; right; now left|apply Hr; apply in_app_iff; now left]. }
  apply (no_cycle pm ID r l2 t HRt Hrt l1); auto.
  destruct l1 as [|n' l1]; cbn [app] in *.
  - inversion Hs; subst. split; [auto|exact I].
  - inversion Hs; subst n'. split; auto.
    change (n :: l1 ++ t :: l2 ++ [r]) with ((n :: l1) ++ t :: l2 ++ [r]) in HR.
    replace ((n :: l1) ++ t :: l2 ++ [r]) with (((n :: l1) ++ [t]) ++ l2 ++ [r]) in HR by (rewrite <- app_assoc; reflexivity).
    apply rpath_app_l in HR. exact HR.
Qed.

Lemma NoDup_incl_len (l l' : list T) : NoDup l -> incl l l' -> length l <= length l'.
Proof. apply NoDup_incl_length. Qed.

Lemma st_fuel pm (ID : indeg1 pm) r : forall fuel n s,
  n <> r -> rpath pm (n :: s ++ [r]) -> ~ In r (n :: s) -> NoDup (n :: s) ->
  length (all_targets pm) + 1 < fuel + length (n :: s) ->
  spanning_tree fuel pm r n <> None.
Proof.
  induction fuel as [|f IH]; intros n s Hn HR Hr ND Hf.
  - exfalso. assert (incl (n :: s) (all_targets pm)) as Hi.
    { clear -HR. revert n HR. induction s as [|q s IHs]; intros n HR x [<-|Hx].
      - cbn in HR. destruct HR as [E _]. eapply edge_all_targets; eauto.
      - destruct Hx.
      - cbn [app] in HR. destruct HR as [E _]. eapply edge_all_targets; eauto.
      - cbn [app] in HR. destruct HR as [_ HR]. eapply IHs; eauto. }
    pose proof (NoDup_incl_len _ _ ND Hi). lia.
  - cbn. destruct (eqb_spec r n) as [|_]; [congruence|].
    destruct (lookup pm n) as [ts|] eqn:L; [|discriminate].
    destruct (mapM (spanning_tree f pm r) ts) eqn:M; [discriminate|]. exfalso.
    revert M. apply mapM_some. intros t Ht.
    assert (edge pm n t) as E by (exists ts; auto).
    destruct (eqb_spec t r) as [->|Htr].
    + destruct f as [|f']; [cbn [length] in *|cbn; rewrite eqb_refl; discriminate].
      assert (incl (n :: s) (all_targets pm)) as Hi.
      { clear -HR. revert n HR. induction s as [|q s IHs]; intros n HR x [<-|Hx].
        - cbn in HR. destruct HR as [E _]. eapply edge_all_targets; eauto.
        - destruct Hx.
        - cbn [app] in HR. destruct HR as [E _]. eapply edge_all_targets; eauto.
        - cbn [app] in HR. destruct HR as [_ HR]. eapply IHs; eauto. }
      pose proof (NoDup_incl_len _ _ ND Hi). cbn [length] in *. lia.
    + apply (IH t (n :: s)); auto.
      * cbn [app]. split; auto.
      * intros [?|?]; [congruence|tauto].
      * constructor; auto. eapply fresh_child; eauto.
      * cbn [length] in *. lia.
Qed.

Lemma root_for_some pm (ID : indeg1 pm) fuel k ts :
  lookup pm k = Some ts -> length (all_targets pm) + 2 <= fuel -> root_for fuel pm k <> None.
Proof.
  intros L Hf. unfold root_for. rewrite L.
  destruct (mapM (spanning_tree fuel pm k) (remove1 k ts)) eqn:M; [discriminate|]. exfalso.
  revert M. apply mapM_some. intros t Ht. apply remove1_In in Ht as [Ht Hne].
  apply (st_fuel pm ID k fuel t []); auto.
  - cbn. split; auto. exists ts; auto.
  - intros [?|[]]; congruence.
  - constructor; [tauto|constructor].
  - cbn [length]. lia.
Qed.

Lemma filter_len_le {A} (f : A -> bool) l : length (filter f l) <= length l.
Proof. induction l; cbn; auto. destruct (f a); cbn; lia. Qed.
Lemma all_targets_delete D pm : length (all_targets (delete_targets D pm)) <= length (all_targets pm).
Proof. unfold all_targets, delete_targets. induction pm as [|[k ts] pm IH]; cbn [map flat_map fst snd]; auto. rewrite !app_length.
  pose proof (filter_len_le (fun t => negb (mem t D)) ts). lia. Qed.

Lemma forest_some fuel : forall keys pm, indeg1 pm ->
  (forall k, In k keys -> lookup pm k <> None) -> length (all_targets pm) + 2 <= fuel ->
  forest_loop fuel keys pm <> None.
Proof.
  induction keys as [|k ks IH]; intros pm ID HK Hf; cbn; [discriminate|].
  destruct (lookup pm k) as [ts|] eqn:L; [|exfalso; eapply HK; eauto; now left].
  destruct (root_for fuel pm k) as [r|] eqn:R; [|exfalso; eapply root_for_some; eauto].
  destruct (forest_loop fuel ks _) eqn:F; [discriminate|]. exfalso. revert F. apply IH.
  - intros a a' b E1 E2. apply edge_delete in E1 as [E1 _], E2 as [E2 _]. eapply ID; eauto.
  - intros k' Hk'. rewrite lookup_delete. destruct (lookup pm k') eqn:L'; [discriminate|].
    exfalso. eapply HK; eauto. now right.
  - pose proof (all_targets_delete (visited_by r) pm). lia.
Qed.

Theorem parallel_moves_terminates (A : amap) :
  indeg1 A -> parallel_moves (length (all_targets A) + 2) A <> None.
Proof.
  intros ID. unfold parallel_moves, spanning_forest.
  destruct (forest_loop _ _ _) eqn:F; [discriminate|]. exfalso. revert F. apply forest_some; auto.
  intros k Hk. apply in_map_iff in Hk as ([k' ts] & <- & Hin). cbn.
  clear -Hin eqb_spec. induction A as [|[k0 t0] A IH]; cbn in *; [contradiction|].
  destruct (eqb_spec k' k0); [discriminate|]. destruct Hin as [H|H]; [inversion H; congruence|auto].
Qed.
End PM.
