(* Functional model of the Fun type checker: fun::syntax::program::Program::check and everything it
   calls (lang/fun/src/typing/{check,symbol_table,errors}.rs, syntax/{types,context,program}.rs,
   syntax/declarations/*.rs, the 15 `impl Check` in syntax/terms/*.rs).  Line-by-line, quirks
   included:
   - the symbol table is threaded explicitly (Rust: &mut SymbolTable); HashMaps are association
     lists in insertion order (insert = replace in place or append); the only places where Rust
     iterates a HashMap are  lookup_ty_for_{c,d}tor / lookup_ty_template_for_{c,d}tor  (at most one
     entry can match for parseable names),  check_type_params  (which of several errors is reported
     depends on the hash order: the model uses insertion order)  and the final collection of the
     instances, which Rust sorts by name afterwards (so the output order is deterministic);
   - instances are keyed by the PRINTED instance name  name ++ print(type_args)  (e.g. "List[i64]"),
     xtors of instances by  xtor ++ print(type_args); the type of a constructor is recovered by
     scanning the instances and  name.replace(print(type_args), "");
   - types are only instantiated lazily (Ty::check); since fix d524b1f Constructor::check and
     New::check first call expected.check(symbol_table), so the instance of the expected type exists
     before its xtors are looked up (flag [eager] = true; [eager] = false is the code before that
     fix, kept for the regression statements);
   - case/new clauses are re-ordered into declaration order using Vec::swap_remove;
   - NameContext::no_dups reports TypeParameterBoundMultipleTimes;
   - since fix eb42971 Ty::check_template checks the types written in data/codata declarations
     completely (a type parameter takes no arguments, a template as many as it has parameters, the
     arguments recursively) WITHOUT creating instances; [old_ty_check_template] .. [old_check_decls]
     are the code before that fix (head name only; finding C15-lazy-declaration-types), kept for the
     regression statements;
   - since fix 5b8c76f Def::check compares the declared return type of `main` with i64
     (check_equality: Mismatch); [old_def_check] .. [old_check_main] are the code before that fix
     (finding main-non-integer-result of C12), kept for the regression statements.
   Errors are the variants of typing::errors::Error without their payload. No proofs here. *)
From Coq Require Import List ZArith NArith String Ascii Bool.
From SCC Require Import Base.Sexp Lang.SynUtil Lang.FunSyn.
Import ListNotations.
Open Scope list_scope.
Open Scope string_scope.

(* ---------- errors.rs ---------- *)
Inductive cerror :=
| EDefinedMultipleTimes | EUndefined | EMismatch | EUnboundVariable | EUnboundCovariable
| EWrongNumberOfArguments | EExpectedTermGotCovariable | EExpectedCovariableGotTerm | EEmptyMatch
| EMissingDtorInNew | EExpectedI64ForNew | EExpectedDataForNew | EWrongNumberOfBinders
| ETypingContextMismatch | EMissingCtorInCase | EUnexpectedCtorsInCase | EUnexpectedDtorsInNew
| EVarBoundMultipleTimes | ECovarBoundMultipleTimes | ETypeParameterBoundMultipleTimes
| EExpectedI64ForConstructor | EWrongNumberOfTypeArguments | EUndefinedWrongTypeArguments
| EInternalPanic.      (* program.rs: panic!("Couldn't find constructor ..") *)

Definition cerror_name (e : cerror) : string :=
  match e with
  | EDefinedMultipleTimes => "DefinedMultipleTimes" | EUndefined => "Undefined" | EMismatch => "Mismatch"
  | EUnboundVariable => "UnboundVariable" | EUnboundCovariable => "UnboundCovariable"
  | EWrongNumberOfArguments => "WrongNumberOfArguments"
  | EExpectedTermGotCovariable => "ExpectedTermGotCovariable"
  | EExpectedCovariableGotTerm => "ExpectedCovariableGotTerm" | EEmptyMatch => "EmptyMatch"
  | EMissingDtorInNew => "MissingDtorInNew" | EExpectedI64ForNew => "ExpectedI64ForNew"
  | EExpectedDataForNew => "ExpectedDataForNew" | EWrongNumberOfBinders => "WrongNumberOfBinders"
  | ETypingContextMismatch => "TypingContextMismatch" | EMissingCtorInCase => "MissingCtorInCase"
  | EUnexpectedCtorsInCase => "UnexpectedCtorsInCase" | EUnexpectedDtorsInNew => "UnexpectedDtorsInNew"
  | EVarBoundMultipleTimes => "VarBoundMultipleTimes" | ECovarBoundMultipleTimes => "CovarBoundMultipleTimes"
  | ETypeParameterBoundMultipleTimes => "TypeParameterBoundMultipleTimes"
  | EExpectedI64ForConstructor => "ExpectedI64ForConstructor"
  | EWrongNumberOfTypeArguments => "WrongNumberOfTypeArguments"
  | EUndefinedWrongTypeArguments => "UndefinedWrongTypeArguments"
  | EInternalPanic => "PANIC"
  end.

Inductive cres (X : Type) := COk (x : X) | CErr (e : cerror).
Arguments COk {X} x.
Arguments CErr {X} e.
Definition cbind {X Y} (r : cres X) (f : X -> cres Y) : cres Y :=
  match r with COk x => f x | CErr e => CErr e end.
Notation "'doc' x <- e ; k" := (cbind e (fun x => k)) (at level 200, x pattern, e at level 100, k at level 200).

(* ---------- printing of types: Print for Ty / TypeArgs with allow_linebreaks = false ---------- *)
Definition print_list (f : fty -> string) (args : list fty) : string :=
  match args with
  | [] => ""
  | a :: r => "[" ++ f a ++ fold_right (fun b acc => ", " ++ f b ++ acc) "]" r
  end.
Fixpoint print_ty (t : fty) : string :=
  match t with
  | FI64 => "i64"
  | FDecl n args => n ++ print_list print_ty args
  end.
Definition print_targs (args : list fty) : string := print_list print_ty args.

(* str::replace(pat, ""): all non-overlapping occurrences, left to right; an empty pattern matches
   between all characters and replacing it by "" changes nothing *)
Fixpoint str_remove_go (pat : string) (plen : nat) (s : string) (skip : nat) : string :=
  match s with
  | EmptyString => EmptyString
  | String c r =>
      match skip with
      | S k => str_remove_go pat plen r k
      | O => if String.prefix pat s then str_remove_go pat plen r (plen - 1)
             else String c (str_remove_go pat plen r 0)
      end
  end.
Definition str_remove (s pat : string) : string :=
  match pat with EmptyString => s | _ => str_remove_go pat (String.length pat) s 0 end.

(* ---------- HashMap<Name, V> as association list in insertion order ---------- *)
Definition amap (V : Type) := list (fname * V).
Fixpoint aget {V} (m : amap V) (k : fname) : option V :=
  match m with
  | [] => None
  | (k', v) :: r => if String.eqb k' k then Some v else aget r k
  end.
Definition ahas {V} (m : amap V) (k : fname) : bool := is_some (aget m k).
Fixpoint ainsert {V} (m : amap V) (k : fname) (v : V) : amap V :=
  match m with
  | [] => [(k, v)]
  | (k', v') :: r => if String.eqb k' k then (k, v) :: r else (k', v') :: ainsert r k v
  end.

(* symbol_table.rs: struct SymbolTable *)
Record symtab := mkst {
  st_defs : amap (fctx * fty);
  st_ctors : amap fctx;
  st_dtors : amap (fctx * fty);
  st_types : amap (fpol * list fty * list fname);
  st_ctor_templates : amap fctx;
  st_dtor_templates : amap (fctx * fty);
  st_type_templates : amap (fpol * fnamectx * list fname)
}.
Definition st_empty : symtab := mkst [] [] [] [] [] [] [].
Definition set_defs st v := mkst v (st_ctors st) (st_dtors st) (st_types st) (st_ctor_templates st) (st_dtor_templates st) (st_type_templates st).
Definition set_ctors st v := mkst (st_defs st) v (st_dtors st) (st_types st) (st_ctor_templates st) (st_dtor_templates st) (st_type_templates st).
Definition set_dtors st v := mkst (st_defs st) (st_ctors st) v (st_types st) (st_ctor_templates st) (st_dtor_templates st) (st_type_templates st).
Definition set_types st v := mkst (st_defs st) (st_ctors st) (st_dtors st) v (st_ctor_templates st) (st_dtor_templates st) (st_type_templates st).
Definition set_ctor_templates st v := mkst (st_defs st) (st_ctors st) (st_dtors st) (st_types st) v (st_dtor_templates st) (st_type_templates st).
Definition set_dtor_templates st v := mkst (st_defs st) (st_ctors st) (st_dtors st) (st_types st) (st_ctor_templates st) v (st_type_templates st).
Definition set_type_templates st v := mkst (st_defs st) (st_ctors st) (st_dtors st) (st_types st) (st_ctor_templates st) (st_dtor_templates st) v.

(* ---------- types.rs: subst_ty, Ty::check, create_instance, TypeArgs::is_instance ---------- *)
(* mappings: HashMap built by collect() from zip(params, args): a later duplicate key wins *)
Definition mk_mappings (params : fnamectx) (targs : list fty) : amap fty :=
  fold_left (fun m kv => ainsert m (fst kv) (snd kv)) (combine params targs) [].
Fixpoint subst_ty (m : amap fty) (t : fty) : fty :=
  match t with
  | FI64 => FI64
  | FDecl n args => match aget m n with Some ty => ty | None => FDecl n (map (subst_ty m) args) end
  end.
Definition subst_binding (m : amap fty) (b : fbinding) : fbinding := mkfb (fbvar b) (fbchi b) (subst_ty m (fbty b)).
Definition subst_ctx (m : amap fty) (c : fctx) : fctx := map (subst_binding m) c.

(* the tail of create_instance, after is_instance: insert the xtor instances, then the type *)
Fixpoint insert_ctor_instances (m : amap fty) (sfx : string) (xtors : list fname) (st : symtab) : cres symtab :=
  match xtors with
  | [] => COk st
  | base :: r =>
      match aget (st_ctor_templates st) base with
      | None => CErr EUndefined
      | Some args => insert_ctor_instances m sfx r (set_ctors st (ainsert (st_ctors st) (base ++ sfx) (subst_ctx m args)))
      end
  end.
Fixpoint insert_dtor_instances (m : amap fty) (sfx : string) (xtors : list fname) (st : symtab) : cres symtab :=
  match xtors with
  | [] => COk st
  | base :: r =>
      match aget (st_dtor_templates st) base with
      | None => CErr EUndefined
      | Some (args, cont) =>
          insert_dtor_instances m sfx r
            (set_dtors st (ainsert (st_dtors st) (base ++ sfx) (subst_ctx m args, subst_ty m cont)))
      end
  end.
Definition create_instance_tail (iname : string) (targs : list fty) (pol : fpol) (params : fnamectx)
           (xtors : list fname) (st : symtab) : cres symtab :=
  let m := mk_mappings params targs in
  let sfx := print_targs targs in
  doc st1 <- match pol with
             | FData => insert_ctor_instances m sfx xtors st
             | FCodata => insert_dtor_instances m sfx xtors st
             end;
  COk (set_types st1 (ainsert (st_types st1) iname (pol, targs, xtors))).

Fixpoint ty_check (t : fty) (st : symtab) {struct t} : cres symtab :=
  match t with
  | FI64 => COk st
  | FDecl name targs =>
      let iname := name ++ print_targs targs in
      match aget (st_types st) iname with
      | Some _ => COk st
      | None =>
          match aget (st_type_templates st) name with
          | None => CErr EUndefined
          | Some (pol, params, xtors) =>
              (* create_instance: type_args.is_instance(&type_params, symbol_table)? *)
              if negb (Nat.eqb (List.length targs) (List.length params)) then CErr EWrongNumberOfTypeArguments
              else
                doc st1 <- (fix go (l : list fty) (st : symtab) : cres symtab :=
                              match l with
                              | [] => COk st
                              | a :: r => doc st' <- ty_check a st; go r st'
                              end) targs st;
                create_instance_tail iname targs pol params xtors st1
          end
      end
  end.
Fixpoint tys_check (l : list fty) (st : symtab) : cres symtab :=
  match l with
  | [] => COk st
  | a :: r => doc st' <- ty_check a st; tys_check r st'
  end.

(* check.rs: check_equality *)
Definition check_equality (st : symtab) (expected got : fty) : cres symtab :=
  doc st1 <- ty_check expected st;
  doc st2 <- ty_check got st1;
  if fty_eqb expected got then COk st2 else CErr EMismatch.

(* ---------- symbol_table.rs: lookups that scan a HashMap ---------- *)
Definition xtor_matches (sfx xt : string) (xtors : list fname) : bool :=
  existsb (fun x => String.eqb (x ++ sfx) xt) xtors.
(* lookup_ty_for_ctor / lookup_ty_for_dtor *)
Fixpoint lookup_ty_for_xtor_in (pol : fpol) (types : amap (fpol * list fty * list fname)) (xt : fname)
  : option (fty * list fname) :=
  match types with
  | [] => None
  | (name, (p, targs, xtors)) :: r =>
      if fpol_eqb p pol && xtor_matches (print_targs targs) xt xtors
      then Some (FDecl (str_remove name (print_targs targs)) targs, xtors)
      else lookup_ty_for_xtor_in pol r xt
  end.
Definition lookup_ty_for_xtor (pol : fpol) (st : symtab) (xt : fname) : option (fty * list fname) :=
  lookup_ty_for_xtor_in pol (st_types st) xt.
(* lookup_ty_template_for_ctor / _dtor *)
Fixpoint find_template_for_xtor (pol : fpol) (tmpl : amap (fpol * fnamectx * list fname)) (x : fname)
  : option (fname * list fname) :=
  match tmpl with
  | [] => None
  | (name, (p, _, xtors)) :: r =>
      if fpol_eqb p pol && existsb (String.eqb x) xtors then Some (name, xtors)
      else find_template_for_xtor pol r x
  end.
Definition lookup_ty_template_for_xtor (pol : fpol) (st : symtab) (x : fname) (targs : list fty)
  : cres (fty * list fname * symtab) :=
  match find_template_for_xtor pol (st_type_templates st) x with
  | Some (name, xtors) =>
      let ty := FDecl name targs in
      doc st1 <- ty_check ty st;
      COk (ty, xtors, st1)
  | None => CErr EUndefinedWrongTypeArguments
  end.
(* the pattern  match lookup_ty_for_X(..) { Ok(ty) => ty, Err(_) => lookup_ty_template_for_X(..)? } *)
Definition lookup_ty_for_xtor_or_template (pol : fpol) (st : symtab) (x : fname) (targs : list fty)
  : cres (fty * list fname * symtab) :=
  match lookup_ty_for_xtor pol st (x ++ print_targs targs) with
  | Some (ty, xtors) => COk (ty, xtors, st)
  | None => lookup_ty_template_for_xtor pol st x targs
  end.

(* ---------- context.rs ---------- *)
(* rightmost binding of the name, whatever its chirality *)
Fixpoint lookup_last (ctx : fctx) (v : fname) : option fbinding :=
  match ctx with
  | [] => None
  | b :: r =>
      match lookup_last r v with
      | Some x => Some x
      | None => if String.eqb (fbvar b) v then Some b else None
      end
  end.
Definition lookup_var (ctx : fctx) (v : fname) : cres fty :=
  match lookup_last ctx v with
  | Some b => match fbchi b with FCns => CErr EExpectedTermGotCovariable | FPrd => COk (fbty b) end
  | None => CErr EUnboundVariable
  end.
Definition lookup_covar (ctx : fctx) (v : fname) : cres fty :=
  match lookup_last ctx v with
  | Some b => match fbchi b with FPrd => CErr EExpectedCovariableGotTerm | FCns => COk (fbty b) end
  | None => CErr EUnboundCovariable
  end.
Definition mem_name (x : fname) (l : list fname) : bool := existsb (String.eqb x) l.
(* TypingContext::no_dups: the chirality of the SECOND occurrence selects the error *)
Fixpoint ctx_no_dups_go (seen : list fname) (c : fctx) : cres unit :=
  match c with
  | [] => COk tt
  | b :: r =>
      if mem_name (fbvar b) seen
      then match fbchi b with FPrd => CErr EVarBoundMultipleTimes | FCns => CErr ECovarBoundMultipleTimes end
      else ctx_no_dups_go (fbvar b :: seen) r
  end.
Definition ctx_no_dups (c : fctx) : cres unit := ctx_no_dups_go [] c.
(* NameContext::no_dups and TypeContext::no_dups: same error variant *)
Fixpoint names_no_dups_go (seen : list fname) (l : list fname) : cres unit :=
  match l with
  | [] => COk tt
  | x :: r => if mem_name x seen then CErr ETypeParameterBoundMultipleTimes else names_no_dups_go (x :: seen) r
  end.
Definition names_no_dups (l : list fname) : cres unit := names_no_dups_go [] l.
(* NameContext::add_types *)
Fixpoint zip_names (names : list fname) (sig : fctx) : fctx :=
  match names, sig with
  | n :: nr, b :: br => mkfb n (fbchi b) (fbty b) :: zip_names nr br
  | _, _ => []
  end.
Definition add_types (names : fnamectx) (sig : fctx) : cres fctx :=
  if negb (Nat.eqb (List.length names) (List.length sig)) then CErr EWrongNumberOfBinders
  else COk (zip_names names sig).
(* TypingContext::check *)
Fixpoint ctx_check (c : fctx) (st : symtab) : cres symtab :=
  match c with
  | [] => COk st
  | b :: r => doc st' <- ty_check (fbty b) st; ctx_check r st'
  end.

(* ---------- the Check trait ---------- *)
Definition checker := symtab -> fctx -> fty -> cres (fterm * symtab).

(* check.rs: check_args, after the length test (zip) *)
Definition check_args_with (chk : fterm -> checker) :=
  fix go (args : list fterm) (tys : fctx) (st : symtab) (ctx : fctx) {struct args} : cres (list fterm * symtab) :=
    match args, tys with
    | a :: ar, b :: br =>
        match fbchi b with
        | FCns =>
            match a with
            | FVar v ty chi =>
                match chi with
                | Some FPrd => CErr EExpectedCovariableGotTerm
                | _ =>
                    doc found <- lookup_covar ctx v;
                    doc st1 <- match ty with Some t => check_equality st t found | None => COk st end;
                    doc st2 <- check_equality st1 (fbty b) found;
                    doc (ar', st3) <- go ar br st2 ctx;
                    COk (FVar v (Some found) (Some FCns) :: ar', st3)
                end
            | _ => CErr EExpectedCovariableGotTerm
            end
        | FPrd =>
            doc st1 <- ty_check (fbty b) st;
            doc (a', st2) <- chk a st1 ctx (fbty b);
            doc (ar', st3) <- go ar br st2 ctx;
            COk (a' :: ar', st3)
        end
    | _, _ => COk ([], st)
    end.
Definition check_args (chk : fterm -> checker) (args : list fterm) (tys : fctx) (st : symtab) (ctx : fctx)
  : cres (list fterm * symtab) :=
  if negb (Nat.eqb (List.length tys) (List.length args)) then CErr EWrongNumberOfArguments
  else check_args_with chk args tys st ctx.

(* clauses together with the checker of their body *)
Record pclause := mkpc { pc_pol : fpol; pc_xtor : fname; pc_names : fnamectx; pc_ctx : fctx; pc_body : fterm; pc_chk : checker }.
Definition prep_clauses (chk : fterm -> checker) :=
  fix go (cls : list fclause) : list pclause :=
    match cls with
    | [] => []
    | FClause p x names ctx body :: r => mkpc p x names ctx body (chk body) :: go r
    end.

(* Vec::swap_remove(position of the first element satisfying f) *)
Fixpoint pop_last {X} (l : list X) : option (list X * X) :=
  match l with
  | [] => None
  | x :: r => match pop_last r with None => Some ([], x) | Some (m, z) => Some (x :: m, z) end
  end.
Fixpoint swap_remove_first {X} (f : X -> bool) (l : list X) : option (X * list X) :=
  match l with
  | [] => None
  | x :: r =>
      if f x then match pop_last r with None => Some (x, []) | Some (m, z) => Some (x, z :: m) end
      else match swap_remove_first f r with Some (y, r') => Some (y, x :: r') | None => None end
  end.

(* the loop `for xtor in expected_xtors` of Case::check (is_case = true) and New::check.
   sig_of full_name = the instance signature and the type the body is checked against *)
Fixpoint check_clauses (is_case : bool) (sfx : string) (expected : fty) (xtors : list fname)
         (cls : list pclause) (st : symtab) (ctx : fctx) : cres (list fclause * list pclause * symtab) :=
  match xtors with
  | [] => COk ([], cls, st)
  | x :: xr =>
      match swap_remove_first (fun c => String.eqb (pc_xtor c) x) cls with
      | None => CErr (if is_case then EMissingCtorInCase else EMissingDtorInNew)
      | Some (cl, cls') =>
          let full := x ++ sfx in
          doc sigty <- (if is_case
                        then match aget (st_ctors st) full with Some sg => COk (sg, expected) | None => CErr EUndefined end
                        else match aget (st_dtors st) full with Some (sg, ret) => COk (sg, ret) | None => CErr EUndefined end);
          let '(sg, bty) := sigty in
          doc _ <- names_no_dups (pc_names cl);
          doc cctx <- add_types (pc_names cl) sg;
          doc (body', st1) <- pc_chk cl st (ctx ++ cctx)%list bty;
          doc (rest, leftover, st2) <- check_clauses is_case sfx expected xr cls' st1 ctx;
          COk (FClause (pc_pol cl) (pc_xtor cl) (pc_names cl) cctx body' :: rest, leftover, st2)
      end
  end.

(* [eager] = true: the code as it is (since fix d524b1f): Constructor::check and New::check first
   call expected.check(symbol_table) (for i64 this is a no-op, so doing it before the i64 test is
   the same).  [eager] = false: the code before the fix (instance-order defect). *)
Fixpoint check_term_gen (eager : bool) (t : fterm) : checker :=
  let check_term := check_term_gen eager in
  fun st ctx expected =>
  match t with
  | FVar v ty chi =>                                            (* var.rs *)
      match chi with
      | Some FCns => CErr EExpectedTermGotCovariable
      | _ =>
          doc found <- lookup_var ctx v;
          doc st1 <- match ty with Some t => check_equality st t found | None => COk st end;
          doc st2 <- check_equality st1 expected found;
          COk (FVar v (Some expected) (Some FPrd), st2)
      end
  | FLit n =>                                                   (* literal.rs *)
      doc st1 <- check_equality st expected FI64;
      COk (FLit n, st1)
  | FOp a o b =>                                                (* op.rs *)
      doc st1 <- check_equality st FI64 expected;
      doc (a', st2) <- check_term a st1 ctx FI64;
      doc (b', st3) <- check_term b st2 ctx FI64;
      COk (FOp a' o b', st3)
  | FIfC so a b th el _ =>                                      (* ifc.rs *)
      doc (a', st1) <- check_term a st ctx FI64;
      doc (b', st2) <- match b with
                       | None => COk (None, st1)
                       | Some b0 => doc (b1, s) <- check_term b0 st1 ctx FI64; COk (Some b1, s)
                       end;
      doc (th', st3) <- check_term th st2 ctx expected;
      doc (el', st4) <- check_term el st3 ctx expected;
      COk (FIfC so a' b' th' el' (Some expected), st4)
  | FPrint nl a next _ =>                                       (* print.rs *)
      doc (a', st1) <- check_term a st ctx FI64;
      doc (next', st2) <- check_term next st1 ctx expected;
      COk (FPrint nl a' next' (Some expected), st2)
  | FLet v vty bound body _ =>                                  (* let.rs *)
      doc st1 <- ty_check vty st;
      doc (bound', st2) <- check_term bound st1 ctx vty;
      doc (body', st3) <- check_term body st2 (ctx ++ [mkfb v FPrd vty])%list expected;
      COk (FLet v vty bound' body' (Some expected), st3)
  | FCall f args _ =>                                           (* call.rs *)
      match aget (st_defs st) f with
      | None => CErr EUndefined
      | Some (types, ret_ty) =>
          doc st1 <- check_equality st expected ret_ty;
          doc (args', st2) <- check_args check_term args types st1 ctx;
          COk (FCall f args' (Some expected), st2)
      end
  | FCtor x args _ =>                                           (* constructor.rs *)
      doc st <- (if eager then ty_check expected st else COk st);
      match expected with
      | FI64 => CErr EExpectedI64ForConstructor
      | FDecl _ targs =>
          let name := x ++ print_targs targs in
          match aget (st_ctors st) name with
          | None => CErr EUndefined
          | Some types =>
              match lookup_ty_for_xtor FData st name with
              | None => CErr EUndefined
              | Some (ty, _) =>
                  doc (args', st1) <- check_args check_term args types st ctx;
                  doc st2 <- check_equality st1 expected ty;
                  COk (FCtor x args' (Some expected), st2)
              end
          end
      end
  | FDtor scrut x targs args _ =>                               (* destructor.rs *)
      let dname := x ++ print_targs targs in
      doc (ty, _, st1) <- lookup_ty_for_xtor_or_template FCodata st x targs;
      doc (scrut', st2) <- check_term scrut st1 ctx ty;
      match aget (st_dtors st2) dname with
      | None => CErr EUndefined
      | Some (types, ret_ty) =>
          doc (args', st3) <- check_args check_term args types st2 ctx;
          doc st4 <- check_equality st3 expected ret_ty;
          COk (FDtor scrut' x targs args' (Some expected), st4)
      end
  | FCase scrut targs cls _ =>                                  (* case.rs *)
      match cls with
      | [] => CErr EEmptyMatch
      | FClause _ x0 _ _ _ :: _ =>
          doc (ty, xtors, st1) <- lookup_ty_for_xtor_or_template FData st x0 targs;
          doc (scrut', st2) <- check_term scrut st1 ctx ty;
          doc (cls', leftover, st3) <- check_clauses true (print_targs targs) expected xtors
                                      (prep_clauses check_term cls) st2 ctx;
          match leftover with
          | [] => COk (FCase scrut' targs cls' (Some expected), st3)
          | _ => CErr EUnexpectedCtorsInCase
          end
      end
  | FNew cls _ =>                                               (* new.rs *)
      doc st <- (if eager then ty_check expected st else COk st);
      match expected with
      | FI64 => CErr EExpectedI64ForNew
      | FDecl name targs =>
          match aget (st_types st) (name ++ print_targs targs) with
          | None => CErr EUndefined
          | Some (FData, _, _) => CErr EExpectedDataForNew
          | Some (FCodata, _, dtors) =>
              doc (cls', leftover, st1) <- check_clauses false (print_targs targs) expected dtors
                                          (prep_clauses check_term cls) st ctx;
              match leftover with
              | [] => COk (FNew cls' (Some expected), st1)
              | _ => CErr EUnexpectedDtorsInNew
              end
          end
      end
  | FLabel l t _ =>                                             (* label.rs *)
      doc (t', st1) <- check_term t st (ctx ++ [mkfb l FCns expected])%list expected;
      COk (FLabel l t' (Some expected), st1)
  | FGoto l t _ =>                                              (* goto.rs *)
      doc cont <- lookup_covar ctx l;
      doc (t', st1) <- check_term t st ctx cont;
      COk (FGoto l t' (Some expected), st1)
  | FExit a _ =>                                                (* exit.rs *)
      doc (a', st1) <- check_term a st ctx FI64;
      COk (FExit a' (Some expected), st1)
  | FParen t =>                                                 (* paren.rs *)
      doc (t', st1) <- check_term t st ctx expected;
      COk (FParen t', st1)
  end.

(* ---------- symbol_table.rs: build_symbol_table ---------- *)
Fixpoint build_ctors (cs : list fctorsig) (st : symtab) : cres symtab :=
  match cs with
  | [] => COk st
  | c :: r =>
      if ahas (st_ctor_templates st) (fctname c) then CErr EDefinedMultipleTimes
      else build_ctors r (set_ctor_templates st (ainsert (st_ctor_templates st) (fctname c) (fctargs c)))
  end.
Fixpoint build_dtors (ds : list fdtorsig) (st : symtab) : cres symtab :=
  match ds with
  | [] => COk st
  | d :: r =>
      if ahas (st_dtor_templates st) (fdtname d) then CErr EDefinedMultipleTimes
      else build_dtors r (set_dtor_templates st (ainsert (st_dtor_templates st) (fdtname d) (fdtargs d, fdtcont d)))
  end.
Definition build_decl (d : fdecl) (st : symtab) : cres symtab :=
  match d with
  | FDDef d =>
      if ahas (st_defs st) (fdname d) then CErr EDefinedMultipleTimes
      else COk (set_defs st (ainsert (st_defs st) (fdname d) (fdctx d, fdret d)))
  | FDData d =>
      if ahas (st_type_templates st) (fdaname d) then CErr EDefinedMultipleTimes
      else build_ctors (fdactors d)
             (set_type_templates st (ainsert (st_type_templates st) (fdaname d)
                                       (FData, fdaparams d, map fctname (fdactors d))))
  | FDCodata d =>
      if ahas (st_type_templates st) (fcoaname d) then CErr EDefinedMultipleTimes
      else build_dtors (fcodtors d)
             (set_type_templates st (ainsert (st_type_templates st) (fcoaname d)
                                       (FCodata, fcoparams d, map fdtname (fcodtors d))))
  end.
Fixpoint build_decls (ds : list fdecl) (st : symtab) : cres symtab :=
  match ds with
  | [] => COk st
  | d :: r => doc st' <- build_decl d st; build_decls r st'
  end.
(* check_type_params: iterates the HashMap type_templates (model: insertion order) *)
Fixpoint check_type_params_go (all : amap (fpol * fnamectx * list fname)) (l : amap (fpol * fnamectx * list fname)) : cres unit :=
  match l with
  | [] => COk tt
  | (_, (_, params, _)) :: r =>
      doc _ <- names_no_dups params;
      if existsb (fun p => ahas all p) params then CErr EDefinedMultipleTimes
      else check_type_params_go all r
  end.
Definition build_symbol_table (p : fprog) : cres symtab :=
  doc st <- build_decls (fpdecls p) st_empty;
  doc _ <- check_type_params_go (st_type_templates st) (st_type_templates st);
  COk st.

(* ---------- declarations: Data::check, Codata::check (check_template), Def::check ---------- *)
(* types.rs: Ty::check_template.  `expected` = the number of type arguments the head takes: the number
   of parameters of the template of that name, 0 for a type parameter of the enclosing template *)
Definition template_arity (st : symtab) (params : fnamectx) (name : fname) : option nat :=
  match aget (st_type_templates st) name with
  | Some (_, tparams, _) => Some (List.length tparams)
  | None => if mem_name name params then Some 0%nat else None
  end.
Fixpoint ty_check_template (st : symtab) (params : fnamectx) (t : fty) {struct t} : cres unit :=
  match t with
  | FI64 => COk tt
  | FDecl name targs =>
      match template_arity st params name with
      | None => CErr EUndefined
      | Some expected =>
          if negb (Nat.eqb (List.length targs) expected) then CErr EWrongNumberOfTypeArguments
          else (fix go (l : list fty) : cres unit :=
                  match l with
                  | [] => COk tt
                  | a :: r => doc _ <- ty_check_template st params a; go r
                  end) targs
      end
  end.
Fixpoint ctx_check_template (st : symtab) (params : fnamectx) (c : fctx) : cres unit :=
  match c with
  | [] => COk tt
  | b :: r => doc _ <- ty_check_template st params (fbty b); ctx_check_template st params r
  end.
Fixpoint data_check (st : symtab) (params : fnamectx) (cs : list fctorsig) : cres unit :=
  match cs with
  | [] => COk tt
  | c :: r => doc _ <- ctx_check_template st params (fctargs c); data_check st params r
  end.
Fixpoint codata_check (st : symtab) (params : fnamectx) (ds : list fdtorsig) : cres unit :=
  match ds with
  | [] => COk tt
  | d :: r =>
      doc _ <- ctx_check_template st params (fdtargs d);
      doc _ <- ty_check_template st params (fdtcont d);
      codata_check st params r
  end.
Definition check_term : fterm -> checker := check_term_gen true.

(* def.rs: Def::check.  `if self.name == "main" { check_equality(.., &Ty::mk_i64(), &self.ret_ty)? }` *)
Definition main_ret_check (d : fdef) (st : symtab) : cres symtab :=
  if String.eqb (fdname d) "main" then check_equality st FI64 (fdret d) else COk st.
Definition def_check_gen (eager : bool) (d : fdef) (st : symtab) : cres (fdef * symtab) :=
  doc _ <- ctx_no_dups (fdctx d);
  doc st1 <- ctx_check (fdctx d) st;
  doc st2 <- ty_check (fdret d) st1;
  doc st2 <- main_ret_check d st2;
  doc (body', st3) <- check_term_gen eager (fdbody d) st2 (fdctx d) (fdret d);
  COk (mkfdef (fdname d) (fdctx d) (fdret d) body', st3).
Definition def_check := def_check_gen true.

(* ---------- program.rs: check_with_table ---------- *)
Fixpoint check_type_decls (ds : list fdecl) (st : symtab) : cres unit :=
  match ds with
  | [] => COk tt
  | FDData d :: r => doc _ <- data_check st (fdaparams d) (fdactors d); check_type_decls r st
  | FDCodata d :: r => doc _ <- codata_check st (fcoparams d) (fcodtors d); check_type_decls r st
  | FDDef _ :: r => check_type_decls r st
  end.
Fixpoint defs_of (ds : list fdecl) : list fdef :=
  match ds with
  | [] => []
  | FDDef d :: r => d :: defs_of r
  | _ :: r => defs_of r
  end.
Fixpoint check_defs_gen (eager : bool) (ds : list fdef) (st : symtab) : cres (list fdef * symtab) :=
  match ds with
  | [] => COk ([], st)
  | d :: r =>
      doc (d', st1) <- def_check_gen eager d st;
      doc (r', st2) <- check_defs_gen eager r st1;
      COk (d' :: r', st2)
  end.
Definition check_defs := check_defs_gen true.

(* collection of the instances *)
Fixpoint collect_ctors (st : symtab) (sfx : string) (xtors : list fname) : cres (list fctorsig) :=
  match xtors with
  | [] => COk []
  | base :: r =>
      match aget (st_ctors st) (base ++ sfx) with
      | None => CErr EInternalPanic
      | Some args => doc r' <- collect_ctors st sfx r; COk (mkfctor base args :: r')
      end
  end.
Fixpoint collect_dtors (st : symtab) (sfx : string) (xtors : list fname) : cres (list fdtorsig) :=
  match xtors with
  | [] => COk []
  | base :: r =>
      match aget (st_dtors st) (base ++ sfx) with
      | None => CErr EInternalPanic
      | Some (args, cont) => doc r' <- collect_dtors st sfx r; COk (mkfdtor base args cont :: r')
      end
  end.
Fixpoint collect_types (st : symtab) (types : amap (fpol * list fty * list fname))
  : cres (list fdata * list fcodata) :=
  match types with
  | [] => COk ([], [])
  | (name, (pol, targs, xtors)) :: r =>
      match pol with
      | FData =>
          doc cs <- collect_ctors st (print_targs targs) xtors;
          doc (das, cos) <- collect_types st r;
          COk (mkfdata name [] cs :: das, cos)
      | FCodata =>
          doc ds <- collect_dtors st (print_targs targs) xtors;
          doc (das, cos) <- collect_types st r;
          COk (das, mkfcodata name [] ds :: cos)
      end
  end.

(* sort_by(|a, b| a.name.cmp(&b.name)): stable; byte-wise string order *)
Definition name_leb (a b : string) : bool := String.leb a b.
Fixpoint insert_sorted {X} (key : X -> string) (x : X) (l : list X) : list X :=
  match l with
  | [] => [x]
  | y :: r => if name_leb (key y) (key x) then y :: insert_sorted key x r else x :: l
  end.
(* stable: later elements are inserted after equal earlier ones *)
Definition sort_by_name {X} (key : X -> string) (l : list X) : list X :=
  fold_left (fun acc x => insert_sorted key x acc) l [].

Definition check_with_table_gen (eager : bool) (p : fprog) (st : symtab) : cres fcprog :=
  doc _ <- check_type_decls (fpdecls p) st;
  doc (defs, st1) <- check_defs_gen eager (defs_of (fpdecls p)) st;
  doc (das, cos) <- collect_types st1 (st_types st1);
  COk (mkfcprog (sort_by_name fdaname das) (sort_by_name fcoaname cos) defs).

Definition check_with_table := check_with_table_gen true.

(* Program::check *)
Definition check_gen (eager : bool) (p : fprog) : cres fcprog :=
  doc st <- build_symbol_table p;
  check_with_table_gen eager p st.
Definition check : fprog -> cres fcprog := check_gen true.
(* the checker before fix d524b1f (instance-order defect), for the regression statements *)
Definition check_before_fix : fprog -> cres fcprog := check_gen false.

(* ---------- the code before the two fixes, for the regression statements ----------
   [old_check_gen strict_decls main_i64]: Program::check with the declaration types checked completely
   (strict_decls = true, the code since fix eb42971) or by head name only (false, the code before it), and with
   (main_i64 = true, since fix 5b8c76f) or without (false) the comparison of main's return type with i64.
   old_check_gen true true = check (Proof/CheckFixed.v old_check_gen_current). *)
Definition old_ty_check_template (st : symtab) (params : fnamectx) (t : fty) : cres unit :=
  match t with
  | FI64 => COk tt
  | FDecl name _ =>
      if ahas (st_type_templates st) name then COk tt
      else if mem_name name params then COk tt else CErr EUndefined
  end.
Fixpoint old_ctx_check_template (st : symtab) (params : fnamectx) (c : fctx) : cres unit :=
  match c with
  | [] => COk tt
  | b :: r => doc _ <- old_ty_check_template st params (fbty b); old_ctx_check_template st params r
  end.
Fixpoint old_data_check (st : symtab) (params : fnamectx) (cs : list fctorsig) : cres unit :=
  match cs with
  | [] => COk tt
  | c :: r => doc _ <- old_ctx_check_template st params (fctargs c); old_data_check st params r
  end.
Fixpoint old_codata_check (st : symtab) (params : fnamectx) (ds : list fdtorsig) : cres unit :=
  match ds with
  | [] => COk tt
  | d :: r =>
      doc _ <- old_ctx_check_template st params (fdtargs d);
      doc _ <- old_ty_check_template st params (fdtcont d);
      old_codata_check st params r
  end.
Fixpoint old_check_type_decls (ds : list fdecl) (st : symtab) : cres unit :=
  match ds with
  | [] => COk tt
  | FDData d :: r => doc _ <- old_data_check st (fdaparams d) (fdactors d); old_check_type_decls r st
  | FDCodata d :: r => doc _ <- old_codata_check st (fcoparams d) (fcodtors d); old_check_type_decls r st
  | FDDef _ :: r => old_check_type_decls r st
  end.
Definition old_def_check (main_i64 : bool) (d : fdef) (st : symtab) : cres (fdef * symtab) :=
  doc _ <- ctx_no_dups (fdctx d);
  doc st1 <- ctx_check (fdctx d) st;
  doc st2 <- ty_check (fdret d) st1;
  doc st2 <- (if main_i64 then main_ret_check d st2 else COk st2);
  doc (body', st3) <- check_term (fdbody d) st2 (fdctx d) (fdret d);
  COk (mkfdef (fdname d) (fdctx d) (fdret d) body', st3).
Fixpoint old_check_defs (main_i64 : bool) (ds : list fdef) (st : symtab) : cres (list fdef * symtab) :=
  match ds with
  | [] => COk ([], st)
  | d :: r =>
      doc (d', st1) <- old_def_check main_i64 d st;
      doc (r', st2) <- old_check_defs main_i64 r st1;
      COk (d' :: r', st2)
  end.
Definition old_check_gen (strict_decls main_i64 : bool) (p : fprog) : cres fcprog :=
  doc st <- build_symbol_table p;
  doc _ <- (if strict_decls then check_type_decls (fpdecls p) st else old_check_type_decls (fpdecls p) st);
  doc (defs, st1) <- old_check_defs main_i64 (defs_of (fpdecls p)) st;
  doc (das, cos) <- collect_types st1 (st_types st1);
  COk (mkfcprog (sort_by_name fdaname das) (sort_by_name fcoaname cos) defs).
(* the checker before fix eb42971 (declaration types by head name only) *)
Definition old_check_decls : fprog -> cres fcprog := old_check_gen false true.
(* the checker before fix 5b8c76f (return type of main unconstrained) *)
Definition old_check_main : fprog -> cres fcprog := old_check_gen true false.
