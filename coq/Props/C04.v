(* C04: shrinking focused Core into AxCut preserves semantics.
   Only statements here; definitions live in Model/Shrink.v (the model of core2axcut),
   Sem/FsCheck.v (wt_fs, unique_binders, ids_bounded), Sem/FsFrag2.v (frag2_prog, decls_ok), Sem/AxCheck.v
   (wt_ax), Sem/AxSem.v (run_named), Sem/CoreSem.v (run_fs); frag_prog, consistent and good are defined in
   Proof/ShrinkSem.v.  Proofs: Proof/Shrink*.v. *)
From Coq Require Import List ZArith NArith String Bool.
From SCC Require Import Sem.FsFrag2 Lang.CoreSyn Lang.AxSyn Sem.AxSem Sem.FsCheck Sem.AxCheck Model.Shrink Proof.ShrinkProof Proof.ShrinkSem Proof.ShrinkExample.
From SCC Require Import Proof.ShrinkRn Proof.ShrinkSimProg Proof.ShrinkTyProg Proof.ShrinkSimClosed Proof.ShrinkExample2 Proof.ShrinkExample2Ok.
From SCC Require Sem.CoreSem.
Import ListNotations.

(* On a well-typed focused program shrinking never panics: the final `panic!("cannot happen")` of
   FsCut::shrink, the "Xtor not found" panic of shrink_known_cuts, the "Type not found" panic of
   lookup_type_declaration and the `_Cont` assertion are unreachable, and the fuel given to the
   non-structural recursion (the size of the definition's body) suffices. *)
Theorem C04_shrink_total : forall p, wt_fs p = true -> exists q, shrink_prog p = SOk q.
Proof. exact shrink_total. Qed.
Print Assumptions C04_shrink_total.

(* The chirality collapse of shrink_binding, for every (chirality, kind of type) combination. *)
Theorem C04_shrink_binding_chirality : forall codata v n,
  shrink_binding codata (mkcb v CPrd CI64) = mkb v Ext I64 /\
  shrink_binding codata (mkcb v CCns CI64) = mkb v Cns (Decl cont_name) /\
  (is_codata codata (CDecl n) = false ->
     shrink_binding codata (mkcb v CPrd (CDecl n)) = mkb v Prd (Decl n) /\
     shrink_binding codata (mkcb v CCns (CDecl n)) = mkb v Cns (Decl n)) /\
  (is_codata codata (CDecl n) = true ->
     shrink_binding codata (mkcb v CPrd (CDecl n)) = mkb v Cns (Decl n) /\
     shrink_binding codata (mkcb v CCns (CDecl n)) = mkb v Prd (Decl n)).
Proof. exact shrink_binding_chirality. Qed.
Print Assumptions C04_shrink_binding_chirality.

(* A cut of a known constructor against a case (of a cocase against a known destructor) continues
   with the body of the first clause for that xtor, the clause parameters replaced by the
   arguments zipped in order; by typing that clause exists and has as many parameters as there are
   arguments. *)
Theorem C04_known_cut_selects_ctor : forall data codata defs G rec E c1 x args t1 ty c2 cls t2 st,
  check_term data codata defs G CPrd ty (FsXtor c1 x args t1) = None ->
  check_term data codata defs G CCns ty (FsXCase c2 cls t2) = None ->
  exists cl,
    find (fun c => cident_eqb (clause_xtor c) x) cls = Some cl /\ clause_xtor cl = x /\
    List.length (clause_ctx cl) = List.length args /\
    shrink_cut rec E (FsXtor c1 x args t1) ty (FsXCase c2 cls t2) st
    = rec (subst_stmt (combine (cids (clause_ctx cl)) (cvars args)) (clause_body cl)) st.
Proof. exact known_cut_selects_ctor. Qed.
Print Assumptions C04_known_cut_selects_ctor.
Theorem C04_known_cut_selects_dtor : forall data codata defs G rec E c1 cls t1 ty c2 x args t2 st,
  check_term data codata defs G CPrd ty (FsXCase c1 cls t1) = None ->
  check_term data codata defs G CCns ty (FsXtor c2 x args t2) = None ->
  exists cl,
    find (fun c => cident_eqb (clause_xtor c) x) cls = Some cl /\ clause_xtor cl = x /\
    List.length (clause_ctx cl) = List.length args /\
    shrink_cut rec E (FsXCase c1 cls t1) ty (FsXtor c2 x args t2) st
    = rec (subst_stmt (combine (cids (clause_ctx cl)) (cvars args)) (clause_body cl)) st.
Proof. exact known_cut_selects_dtor. Qed.
Print Assumptions C04_known_cut_selects_dtor.
(* the zipped substitution sends the i-th parameter to the i-th argument *)
Theorem C04_known_cut_substitution : forall ids args i nm d,
  NoDup ids -> List.length ids = List.length args -> i < List.length ids ->
  subst_ident (combine ids args) (nm, nth i ids 0%N) = nth i args d.
Proof. exact subst_combine_nth. Qed.
Print Assumptions C04_known_cut_substitution.

(* A cut of two abstractions <mu a.sp | mu~ x.sc> becomes `create v = {..}; next` where `next` -
   the side that runs first - is the producer's body for i64 and data types (v = a) and the
   consumer's body for codata types (v = x). *)
Theorem C04_critical_pair_order : forall rec E vp sp vc sc ty st s st',
  shrink_critical_pairs rec E vp sp vc sc ty st = SOk (s, st') ->
  match ty with
  | CI64 =>
      exists body next st1,
        rec sc st = SOk (body, st1) /\ rec sp st1 = SOk (next, st') /\
        s = Create vp (Decl cont_name) None [(ret_name, [mkb vc Ext I64], body)] next
  | CDecl n =>
      exists cls next st2,
        all_let_clauses cls /\
        if is_codata (e_codata E) ty
        then rec sc st2 = SOk (next, st') /\ s = Create vc (Decl n) None cls next
        else rec sp st2 = SOk (next, st') /\ s = Create vp (Decl n) None cls next
  end.
Proof. exact critical_pair_order. Qed.
Print Assumptions C04_critical_pair_order.

(* `lift`: the call passes the free variables of the lifted statement (BTreeSet order, duplicate-free);
   the new definition has one fresh parameter per free variable in the same order with the same
   name/chirality/type, pairwise distinct; its body is the statement with the free variables renamed
   to the parameters; its label is new (printed form) with respect to the labels used so far. *)
Theorem C04_lift_closed : forall rec E s st r st',
  lift rec E s st = SOk (r, st') ->
  let fvs := typed_free_vars s in
  let params := fresh_params fvs (s_max st) in
  ssorted cbinding_compare fvs /\ NoDup fvs /\ NoDup (cids params) /\
  Forall2 (fun p f => fst (cbvar p) = fst (cbvar f) /\ cbchi p = cbchi f /\ cbty p = cbty f) params fvs /\
  exists label body st3,
    fst label = ("lift_" ++ e_label E ++ "_")%string /\
    (s_max st + N.of_nat (List.length fvs) < snd label)%N /\
    existsb (fun u => String.eqb (show_cident u) (show_cident label)) (s_used st) = false /\
    r = Call label (shrink_context (e_codata E) fvs) /\
    rec (subst_stmt (combine (cids fvs) (cvars params)) s)
        (mksst (snd label) (s_lifted st) (label :: s_used st)) = SOk (body, st3) /\
    st' = mksst (s_max st3) (mkd label (shrink_context (e_codata E) params) body :: s_lifted st3) (s_used st3).
Proof. exact lift_closed. Qed.
Print Assumptions C04_lift_closed.

(* max_id only grows and bounds the id of every variable of the output (binders and occurrences,
   parameters of lifted definitions included) - what linearization relies on. *)
Theorem C04_shrink_ids_bounded : forall p q,
  ids_bounded p = true -> shrink_prog p = SOk q ->
  (fspmax p <= pmax q)%N /\ forallb (def_le (pmax q)) (pdefs q) = true.
Proof. exact shrink_ids_bounded. Qed.
Print Assumptions C04_shrink_ids_bounded.

(* every id introduced (lifted labels, their parameters, binders) is > the input's max_id, <= the
   output's max_id, and the introduced ids are pairwise distinct *)
Theorem C04_shrink_fresh_ids : forall p q,
  ids_bounded p = true -> shrink_prog p = SOk q ->
  let B := lifted_binders (pdefs q) in
  (forall x, In x B -> (fspmax p < x)%N -> (x <= pmax q)%N) /\
  NoDup (filter (fun x => N.ltb (fspmax p) x) B).
Proof. exact shrink_fresh_ids. Qed.
Print Assumptions C04_shrink_fresh_ids.

(* The printed names of the output's definitions (what the back ends use as assembly labels) are
   pairwise distinct whenever those of the input are: a lifted label never prints like an input
   definition or another lifted label (the repaired label loop of `lift`, /repo fix fd7ddb1). *)
Theorem C04_lift_label_fresh : forall p q,
  NoDup (map (fun d => show_cident (fsdname d)) (fspdefs p)) -> shrink_prog p = SOk q ->
  NoDup (map (fun d => show_ident (dname d)) (pdefs q)).
Proof. exact lift_label_fresh. Qed.
Print Assumptions C04_lift_label_fresh.

(* SEMANTIC PRESERVATION (the property C04) is proved under guards on the input, by two theorems:
   - C04_shrink_correct_partial (next), for the first-order integer fragment ([frag_prog]: literal and
     operation against mu~, ifc, print, exit, calls with integer producer arguments; [consistent]:
     identifiers with the same id have the same name, which `uniquify` guarantees); no typing
     hypothesis, no construct that involves a consumer.
   - C04_shrink_correct_fragment2 (below), for every construct.
   [good o]: the Core run ends with exit or with undefined arithmetic; runs of the input that get stuck
   or run out of fuel say nothing.
   Not proved: the statement without guards (entry points with parameters other than integer producers,
   undeclared parameter or field types, identifiers spelled inconsistently).
   ./check C04 checks it on every run, also outside the guards: Core machine on the focused input =
   AxCut machine on the Rust output (= model output) for every corpus and generated program and
   argument tuple. *)
Theorem C04_shrink_correct_partial : forall p q n args o,
  frag_prog p = true ->
  (forall d, In d (fspdefs p) -> consistent (cvars (fsdctx d) ++ idents (fsdbody d))) ->
  shrink_prog p = SOk q ->
  CoreSem.run_fs n p args = o -> good o ->
  exists m, run_named m q args = o.
Proof. exact shrink_correct_partial. Qed.
Print Assumptions C04_shrink_correct_partial.

(* the preconditions are satisfiable on a real program (examples/Tuples/Tuples.sc, focused by the real
   pipeline, read back by the Coq reader): wt_fs, unique_binders, ids_bounded hold; the model shrinks
   it to a program that passes wt_ax; both machines print 2 and exit with 0 *)
Theorem C04_example_real_program_wt :
  match tuples_focused with
  | Some p => wt_fs p && unique_binders p && ids_bounded p
  | None => false
  end = true.
Proof. exact tuples_wt_fs. Qed.
Print Assumptions C04_example_real_program_wt.
Theorem C04_example_real_program_shrinks :
  match tuples_focused with
  | Some p =>
      match shrink_prog p with
      | SOk q => wt_ax q
                 && obs_eqb (run_named 1000 q []) ([(true, 2%Z)], OExit 0)
                 && obs_eqb (CoreSem.run_fs 5000 p []) ([(true, 2%Z)], OExit 0)
      | SErr _ => false
      end
  | None => false
  end = true.
Proof. exact tuples_shrunk_ok. Qed.
Print Assumptions C04_example_real_program_shrinks.

(* All constructs, on a fragment given by boolean predicates:

     frag2_prog p = names_ok p && main_int p
       names_ok p : in every definition, every variable occurrence is spelled like the binding its id refers
                    to ([nc_stmt], Sem/FsFrag2.v) - what `uniquify` establishes.  The checkers, the substitution
                    of core2axcut and its free-variable computation look at the numeric id only, the Core
                    machine at name and id; without it the statement is false (a lifted statement would pass a
                    variable spelled unlike its binder and the call gets stuck; docs/C04.md, no Coq theorem
                    states the counterexample).
       main_int p : the parameters of the entry point are integer producers (what run_fs can be started on)
     decls_ok p   : parameter types of definitions and field types of xtors are declared (needed for the
                    typing of the output, see C12_shrink_preserves_typing_fragment2)

   Covered: top-level calls and recursion; data types (let, switch, known cuts resolved by substitution);
   consumers (mu~ bindings, renaming cuts, integer continuations as closures of the codata type _Cont,
   create/invoke); eta expansion of variable cuts; critical pairs at i64, at data (producer first) and at
   codata (consumer first, the producer re-run by name at every destructor); lifted statements.
   Proof: forward simulation with a typed, step-indexed relation between Core machine values and AxCut
   values that follows the chirality collapse (Proof/ShrinkRel.v, Proof/ShrinkSim*.v). *)
Theorem C04_shrink_correct_fragment2 : forall p q n args o,
  frag2_prog p = true -> decls_ok p = true ->
  wt_fs p = true -> unique_binders p = true -> ids_bounded p = true ->
  shrink_prog p = SOk q ->
  CoreSem.run_fs n p args = o -> good o ->
  exists m, run_named m q args = o.
Proof. exact shrink_correct_fragment2_closed. Qed.
Print Assumptions C04_shrink_correct_fragment2.

(* the same for the larger input fragment without decls_ok, with the hypothesis that the OUTPUT passes the
   AxCut checker (binders fresh along every path, definition names distinct) *)
Theorem C04_shrink_correct_fragment2_wt_ax : forall p q n args o,
  frag2_prog p = true -> wt_fs p = true -> unique_binders p = true -> ids_bounded p = true ->
  shrink_prog p = SOk q -> wt_ax q = true ->
  CoreSem.run_fs n p args = o -> good o ->
  exists m, run_named m q args = o.
Proof. exact shrink_correct_fragment2. Qed.
Print Assumptions C04_shrink_correct_fragment2_wt_ax.

(* non-vacuity: a real focused program (Proof/ShrinkExample2.v: lists, a lazy pair, recursion, two
   critical pairs whose expanded side is LIFTED) satisfies every hypothesis; both machines run on it *)
Theorem C04_example_fragment2 :
  match frag2_focused with
  | Some p =>
      match shrink_prog p with
      | SOk q =>
          frag2_prog p && decls_ok p && wt_fs p && unique_binders p && ids_bounded p && wt_ax q
          && Nat.eqb (List.length (filter (fun d => is_lifted_name (dname d)) (pdefs q))) 2
          && existsb (fun t => negb (Nat.eqb (List.length (txtors t)) 0)) (ptypes q)
          && obs_eqb (CoreSem.run_fs 3000 p [0%Z]) (frag2_expected 0) && obs_eqb (run_named 1000 q [0%Z]) (frag2_expected 0)
          && obs_eqb (CoreSem.run_fs 3000 p [3%Z]) (frag2_expected 3) && obs_eqb (run_named 1000 q [3%Z]) (frag2_expected 3)
      | SErr _ => false
      end
  | None => false
  end = true.
Proof. exact frag2_example_ok. Qed.
Print Assumptions C04_example_fragment2.
