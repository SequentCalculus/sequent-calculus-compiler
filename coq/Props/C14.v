(* C14: emitted assembly is accepted by the target assembler.  Only statements.
   (a),(b)  x86-64 jump-table stride and encodability of the instruction selection (Proof/X86Wf.v, X86Consts.v):
            the k-th `jmp near` entry of a table lies jump_length k bytes after the first (5 bytes per entry;
            jump_length is the crate's); every instruction selected for arithmetic, moves, literals, comparisons
            is encodable (sign-extended 32-bit immediates / displacements, `mov r64, imm64`, no `imul [mem], reg`)
            for all operands the generic code generator can pass (fresh target).
   (c)-(e)  labels as theorems (generic code generator, three back ends); stride on A64 / RV.
   (f)-(m)  MAIN THEOREMS: the complete routine passes the checker asm_wf the run-time check applies to the real
            output, and is code_small, under boolean guards on the program: C14_x86/a64/rv_compile_asm_wf,
            C14_x86/a64/rv_compile_code_small.
      Not proved: that asm_wf (Sem/X86Wf.v, A64Wf.v, RVWf.v) is what the assemblers accept (it is evaluated on the
   real output on every run, whose text GNU as assembles); that the models emit the crate's instructions
   (correspondence check).  Outside the guards: label-collision-name-digits, a64-branch-reach (docs/C14.md). *)
From Coq Require Import List ZArith NArith String Bool.
From SCC Require Import Lang.AxSyn Model.Backend Model.X86 Sem.X86Sem Sem.X86Wf Proof.X86Wf Proof.X86Consts Generated.Constants.
From SCC Require Model.A64 Model.RV Sem.A64Sem Sem.RVSem Sem.A64Wf Sem.RVWf.
From SCC Require Import Sem.LabelGuard Proof.LabelStrings Proof.LabelGen Proof.LabelsX86 Proof.LabelsA64 Proof.LabelsRV Proof.LabelThms Proof.StrideA64RV.
Import ListNotations.
Open Scope Z_scope.

Theorem C14_x86_jump_table_stride :
  forall (ls : list string) (a : Z) (k : nat),
    (k < List.length ls)%nat ->
    nth k (addrs (map JMPLN ls) a) 0 = a + jump_length (N.of_nat k).
Proof. exact addrs_table. Qed.
Print Assumptions C14_x86_jump_table_stride.

Theorem C14_x86_image_uses_these_addresses :
  forall (cs : list xcode) (i : positive) (a : Z) (im : image),
    (forall j, (i <= j)%positive -> PM.find j (addr_of im) = None) ->
    forall k, (k < List.length cs)%nat ->
      PM.find (Pos.of_nat (Pos.to_nat i + k)) (addr_of (build cs i a im)) = Some (nth k (addrs cs a) 0).
Proof. exact build_addr_of. Qed.
Print Assumptions C14_x86_image_uses_these_addresses.

Theorem C14_x86_jump_length_is_the_crates :
  map jump_length [0; 1; 2; 3; 4; 5]%N = X86C.jump_length_samples.
Proof. exact x86_jump_length_samples. Qed.
Print Assumptions C14_x86_jump_length_is_the_crates.

Theorem C14_x86_arith_encodable :
  forall (o : binop) (t s1 s2 : xtemp),
    o <> Prod \/ (forall p, t <> XS p \/ (t <> s1 /\ t <> s2)) ->
    temp_enc t -> temp_enc s1 -> temp_enc s2 ->
    Forall (fun c => instr_wf c = true) (x_arith o t s1 s2).
Proof. exact arith_encodable. Qed.
Print Assumptions C14_x86_arith_encodable.

Theorem C14_x86_load_immediate_encodable :
  forall (t : xtemp) (i : Z),
    temp_enc t -> (-9223372036854775808 <= i <= 9223372036854775807) ->
    Forall (fun c => instr_wf c = true) (x_load_immediate t i).
Proof. exact load_immediate_encodable. Qed.
Print Assumptions C14_x86_load_immediate_encodable.

Theorem C14_x86_mov_encodable :
  forall (t s : xtemp), temp_enc t -> temp_enc s -> Forall (fun c => instr_wf c = true) (x_mov t s).
Proof. exact mov_encodable. Qed.
Print Assumptions C14_x86_mov_encodable.

Theorem C14_x86_compare_encodable :
  forall (a b : xtemp), temp_enc a -> temp_enc b -> Forall (fun c => instr_wf c = true) (compare a b).
Proof. exact compare_encodable. Qed.
Print Assumptions C14_x86_compare_encodable.

(* a multiplication whose target spill slot aliases an operand would need `imul [mem], reg`, which
   does not exist; the generic code generator never asks for it (fresh targets), but the selection
   function does emit it: recorded as a latent defect of mul_to_spill *)
Theorem C14_x86_mul_to_spill_latent_refuted :
  exists t s1 s2, temp_enc t /\ temp_enc s1 /\ temp_enc s2 /\
    ~ Forall (fun c => instr_wf c = true) (x_arith Prod t s1 s2).
Proof.
  exists (XS 1%N), (XS 1%N), (XR 5%N).
  split; [reflexivity|]. split; [reflexivity|]. split; [reflexivity|].
  intro H. apply Forall_inv in H. cbv in H. discriminate H.
Qed.
Print Assumptions C14_x86_mul_to_spill_latent_refuted.

(* ======================= labels as theorems; AArch64 and RISC-V =======================
   PROVED (Proof/LabelStrings.v, LabelGen.v, Labels{X86,A64,RV}.v, LabelThms.v, StrideA64RV.v):
   (c) label uniqueness and definedness as theorems about the GENERIC code generator, for every back end
       whose emitters obey the label discipline `labels_ok` (only b_label defines a label handed in by
       the generic part; the memory operations define lab<k> for pairwise distinct k in (lc, lc'] and
       reference only those; every other emitter defines nothing and references at most its argument),
       instantiated for x86-64, AArch64 and RISC-V, and lifted to the complete routines
       (asm_main / cleanup included).  The label counter is monotone and every number is used once;
       the labels of a later call are fresh w.r.t. an earlier one.
   (d) the guard Sem/LabelGuard.labels_guard (a boolean predicate, evaluated by the run-time check on
       every program: tag guard / name-digits / noguard) cannot be dropped: C14_compile_labels_unique_refuted.
       This is the known finding label-collision-name-digits (witnesses corpus/c14/, harness/src/c14probe.rs).
   (e) jump-table stride for AArch64 (`B l`) and RISC-V (`JAL X0 l`): entry k at jump_length k bytes.
      Encodability on AArch64 / RISC-V: part of C14_a64/rv_compile_asm_wf below (also evaluated: steps wf-a64 / wf-rv). *)

Theorem C14_label_texts_not_injective :
  pr (GCL "Aa" 18 "Bx_19_Cy") = pr (GCL "Aa_18_Bx" 19 "Cy") /\ pr (GCL "Aa" 18 "Bx_19") = pr (GTL "Aa_18_Bx" 19).
Proof. exact pr_not_injective. Qed.
Print Assumptions C14_label_texts_not_injective.

(* the label texts are injective on the abstract labels a program inside the guard can generate *)
Theorem C14_label_texts_injective_types :
  forall g1 g2, in_univ ty_ok all_true g1 -> in_univ ty_ok all_true g2 -> pr g1 = pr g2 -> g1 = g2.
Proof. exact pr_inj_types. Qed.
Print Assumptions C14_label_texts_injective_types.
Theorem C14_label_texts_injective_xtors :
  forall g1 g2, in_univ all_true xtor_ok g1 -> in_univ all_true xtor_ok g2 -> pr g1 = pr g2 -> g1 = g2.
Proof. exact pr_inj_xtors. Qed.
Print Assumptions C14_label_texts_injective_xtors.

(* the generic code generator, any back end with the label discipline: structure of the defined labels
   WITHOUT any assumption on digits in names (abstract labels are duplicate-free; numbers in (lc, lc']) *)
Theorem C14_translate_abstract_labels_unique :
  forall (Code Temp : Type) (B : backend Code Temp) (cdefs crefs : Code -> list string),
    labels_ok B cdefs crefs ->
    forall (okS okX : string -> bool) (types : list tydecl) (ds : list def) (lc : N) (c : list Code) (lc' : N),
      forallb (fun d => names_ok okS okX (dbody d)) ds = true -> NoDup (dnames ds) ->
      translate B types ds lc = Ok (c, lc') ->
      translate_inv cdefs okS okX (dnames ds) lc c lc'.
Proof. exact @translate_defs. Qed.
Print Assumptions C14_translate_abstract_labels_unique.

Theorem C14_compile_labels_unique :
  forall (Code Temp : Type) (B : backend Code Temp) (cdefs crefs : Code -> list string),
    labels_ok B cdefs crefs ->
    forall (p : prog) (lc : N) (c : list Code) (n : nat) (lc' : N),
      labels_guard p = true -> compile B p lc = Ok (c, n, lc') ->
      NoDup (LabelGen.defs cdefs c) /\ (lc <= lc')%N /\
      ~ In "cleanup"%string (LabelGen.defs cdefs c) /\ ~ In "asm_main"%string (LabelGen.defs cdefs c).
Proof. exact @compile_labels_unique. Qed.
Print Assumptions C14_compile_labels_unique.

Theorem C14_compile_refs_defined :
  forall (Code Temp : Type) (B : backend Code Temp) (cdefs crefs : Code -> list string),
    labels_ok B cdefs crefs ->
    forall (p : prog) (lc : N) (c : list Code) (n : nat) (lc' : N),
      calls_guard p = true -> compile B p lc = Ok (c, n, lc') ->
      forall l, In l (LabelGen.refs crefs c) -> In l (LabelGen.defs cdefs c) \/ l = "cleanup"%string.
Proof. exact @compile_refs_defined. Qed.
Print Assumptions C14_compile_refs_defined.

(* the counter: labels generated by a later call are different from those of an earlier one *)
Theorem C14_labels_of_later_call_fresh :
  forall (Code Temp : Type) (B : backend Code Temp) (cdefs crefs : Code -> list string),
    labels_ok B cdefs crefs ->
    forall types1 ds1 lc1 c1 lc1' types2 ds2 lc2 c2 lc2',
      ((guard_types ds1 && guard_types ds2) || (guard_xtors ds1 && guard_xtors ds2))%bool = true ->
      translate B types1 ds1 lc1 = Ok (c1, lc1') -> translate B types2 ds2 lc2 = Ok (c2, lc2') -> (lc1' <= lc2)%N ->
      forall l, In l (LabelGen.defs cdefs c1) -> In l (LabelGen.defs cdefs c2) ->
      exists name, l = (name ++ "_")%string /\ lower_first name = true.
Proof. exact @labels_of_later_call_fresh. Qed.
Print Assumptions C14_labels_of_later_call_fresh.

(* the three back ends obey the discipline *)
Theorem C14_x86_label_discipline : labels_ok x86_backend xdefs X86Wf.referenced.
Proof. exact x86_labels_ok. Qed.
Print Assumptions C14_x86_label_discipline.
Theorem C14_a64_label_discipline : labels_ok A64.a64_backend A64Wf.all_defs A64Wf.referenced.
Proof. exact a64_labels_ok. Qed.
Print Assumptions C14_a64_label_discipline.
Theorem C14_rv_label_discipline : labels_ok RV.rv_backend RVWf.all_defs RVWf.referenced.
Proof. exact rv_labels_ok. Qed.
Print Assumptions C14_rv_label_discipline.

(* the complete routines: every label defined once, every referenced label defined *)
Theorem C14_x86_routine_labels :
  forall (p : prog) (lc : N) (r : list xcode) (n : nat) (lc' : N),
    labels_guard p = true -> calls_guard p = true -> x86_compile p lc = Ok (r, n, lc') ->
    NoDup (LabelGen.defs xdefs r) /\ incl (LabelGen.refs X86Wf.referenced r) (LabelGen.defs xdefs r) /\ (lc <= lc')%N.
Proof. exact x86_routine_labels. Qed.
Print Assumptions C14_x86_routine_labels.
Theorem C14_a64_routine_labels :
  forall (p : prog) (lc : N) (r : list A64.acode) (n : nat) (lc' : N),
    labels_guard p = true -> calls_guard p = true -> A64.a64_compile p lc = Ok (r, n, lc') ->
    NoDup (LabelGen.defs A64Wf.all_defs r) /\ incl (LabelGen.refs A64Wf.referenced r) (LabelGen.defs A64Wf.all_defs r) /\ (lc <= lc')%N.
Proof. exact a64_routine_labels. Qed.
Print Assumptions C14_a64_routine_labels.
Theorem C14_rv_routine_labels :
  forall (p : prog) (lc : N) (c : list RV.rcode) (n : nat) (lc' : N),
    labels_guard p = true -> calls_guard p = true -> RV.rv_compile p lc = Ok (c, n, lc') ->
    NoDup ("cleanup"%string :: LabelGen.defs RVWf.all_defs c)
    /\ incl (LabelGen.refs RVWf.referenced c) ("cleanup"%string :: LabelGen.defs RVWf.all_defs c) /\ (lc <= lc')%N.
Proof. exact rv_routine_labels. Qed.
Print Assumptions C14_rv_routine_labels.

(* without the name-digits clause of the guard the statement is false *)
Theorem C14_compile_labels_unique_refuted :
  unguarded_labels_guard collide_prog = true /\ calls_guard collide_prog = true /\
  exists c n lc', compile x86_backend collide_prog 0 = Ok (c, n, lc') /\ ~ NoDup (LabelGen.defs xdefs c).
Proof. exact compile_labels_unique_refuted. Qed.
Print Assumptions C14_compile_labels_unique_refuted.
(* the hypotheses are satisfiable: definitions named lab3 and cleanup, a type instance List[i64] *)
Theorem C14_labels_guard_satisfiable :
  labels_guard distinct_prog = true /\ calls_guard distinct_prog = true /\
  LabelGen.defs xdefs (match compile x86_backend distinct_prog 7 with Ok (c, _, _) => c | Err _ => [] end)
  = ["main_"; "Aa_8"; "Aa_8_Bx"; "List_i64_9"; "List_i64_9_Cy"; "lab3_"; "lab10"; "cleanup_"]%string.
Proof. exact labels_guard_satisfiable. Qed.
Print Assumptions C14_labels_guard_satisfiable.

(* jump-table stride, AArch64 and RISC-V *)
Theorem C14_a64_jump_table_stride :
  forall (ls : list string) (a : Z) (k : nat),
    (k < List.length ls)%nat ->
    nth k (A.addrs (map A64.B ls) a) 0 = a + A64.jump_length (N.of_nat k).
Proof. exact A.addrs_table. Qed.
Print Assumptions C14_a64_jump_table_stride.
Theorem C14_a64_table_entries_are_fixed_jumps :
  forall (cls : list clause) (base : string),
    code_table A64.a64_backend cls base = map A64.B (map (fun c => (base +++ "_" +++ show_ident (cl_xtor c))%string) cls).
Proof. exact A.table_is_fixed_jumps. Qed.
Print Assumptions C14_a64_table_entries_are_fixed_jumps.
Theorem C14_a64_image_uses_these_addresses :
  forall (cs : list A64.acode) (i : positive) (a : Z) (im : A64Sem.image),
    (forall j, (i <= j)%positive -> A64Sem.PM.find j (A64Sem.addr_of im) = None) ->
    forall k, (k < List.length cs)%nat ->
      A64Sem.PM.find (Pos.of_nat (Pos.to_nat i + k)) (A64Sem.addr_of (A64Sem.build cs i a im)) = Some (nth k (A.addrs cs a) 0).
Proof. exact A.build_addr_of. Qed.
Print Assumptions C14_a64_image_uses_these_addresses.
Theorem C14_rv_jump_table_stride :
  forall (ls : list string) (a : Z) (k : nat),
    (k < List.length ls)%nat ->
    nth k (R.addrs (map (RV.JAL RV.ZERO) ls) a) 0 = a + RV.jump_length (N.of_nat k).
Proof. exact R.addrs_table. Qed.
Print Assumptions C14_rv_jump_table_stride.
Theorem C14_rv_table_entries_are_fixed_jumps :
  forall (cls : list clause) (base : string),
    code_table RV.rv_backend cls base = map (RV.JAL RV.ZERO) (map (fun c => (base +++ "_" +++ show_ident (cl_xtor c))%string) cls).
Proof. exact R.table_is_fixed_jumps. Qed.
Print Assumptions C14_rv_table_entries_are_fixed_jumps.
Theorem C14_rv_image_uses_these_addresses :
  forall (cs : list RV.rcode) (i : positive) (a : Z) (im : RVSem.image),
    (forall j, (i <= j)%positive -> RVSem.PM.find j (RVSem.addr_of im) = None) ->
    forall k, (k < List.length cs)%nat ->
      RVSem.PM.find (Pos.of_nat (Pos.to_nat i + k)) (RVSem.addr_of (RVSem.build cs i a im)) = Some (nth k (R.addrs cs a) 0).
Proof. exact R.build_addr_of. Qed.
Print Assumptions C14_rv_image_uses_these_addresses.

(* what the immediate classes of the AArch64 checker mean *)
Theorem C14_a64_imm12_is_the_add_sub_immediate :
  forall i, A64Wf.imm12 i = true <-> (0 <= i <= 4095 \/ exists h, 0 <= h <= 4095 /\ i = 4096 * h).
Proof. exact A.imm12_spec. Qed.
Print Assumptions C14_a64_imm12_is_the_add_sub_immediate.
Theorem C14_a64_uoff8_is_the_scaled_unsigned_offset :
  forall i, A64Wf.uoff8 i = true <-> exists q, 0 <= q <= 4095 /\ i = 8 * q.
Proof. exact A.uoff8_spec. Qed.
Print Assumptions C14_a64_uoff8_is_the_scaled_unsigned_offset.

(* ======================= asm_wf and code_small as THEOREMS for x86-64 =======================
   PROVED (Sem/WfGuard.v, Proof/CodegenForallLin.v, Proof/X86WfAll.v, Proof/X86WfCor.v):
   (f) EVERY instruction the x86-64 code generator and the routine wrapper emit passes the checker Sem/X86Wf.asm_wf
       that the run-time check applies to the real output: labels defined once, every referenced label defined
       (and not a '#'-mark), calls only to the two declared print routines, no label colliding with an extern, and
       every instruction encodable (registers < 16; imm32 / disp32 sign-extended; `mov r64, imm64`; no
       `imul [mem], reg`) - memory operations with field offsets, table jumps, push / pop, prologue / epilogue
       included.  Hypotheses, all boolean on the PROGRAM: the label guards, the ordered linear discipline
       (lin_check_prog: the target of an operation is fresh), plain names (no definition / type named '#...'),
       and imm_guard = the ranges of the three immediates that come from the program: literals are 64-bit values,
       a Substitute lists at most 2^31 pairs (`add qword [r], copies-1`), a type declares at most 2^28 xtors
       (`add tmp, 5*k`).  The linear discipline cannot be dropped (C14_x86_compile_asm_wf_lin_needed: the latent
       `imul [mem], reg` of mul_to_spill becomes reachable).
   (g) per-method lemmas (`W l` = every instruction of l encodable, references non-mark, calls to print routines
       only) and the generic theorem they are lifted by: Proof/CodegenForallLin.translate_QL (an instance of
       translate_QG / code_statement_QG there) refines Proof/CodegenForall.v with what the generic code generator
       guarantees about the arguments of a method.
   (h) code_small from the size theorem of C19 under size_guard (cg_bound_defs <= 2^40).
   (i) calls_guard follows from the linear discipline. *)
From SCC Require Import Model.LinCheck Sem.WfGuard Proof.SimFrag Proof.X86SimAddr Proof.X86WfAll Proof.X86WfCor Proof.Fun2CoreExamples.

Theorem C14_x86_compile_asm_wf :
  forall (p : prog) (lc : N) (cs : list xcode) (n : nat) (lc' : N),
    labels_guard p = true -> calls_guard p = true -> lin_check_prog p = true ->
    plain_names p = true -> plain_types p = true -> imm_guard p = true ->
    x86_compile p lc = Ok (cs, n, lc') -> asm_wf cs = None.
Proof. exact x86_compile_asm_wf. Qed.
Print Assumptions C14_x86_compile_asm_wf.

Theorem C14_x86_compile_code_small :
  forall (p : prog) (lc : N) (cs : list xcode) (n : nat) (lc' : N),
    lin_check_prog p = true -> size_guard p = true ->
    x86_compile p lc = Ok (cs, n, lc') -> code_small cs = true.
Proof. exact x86_compile_code_small. Qed.
Print Assumptions C14_x86_compile_code_small.

Theorem C14_lin_check_calls_guard : forall p : prog, lin_check_prog p = true -> calls_guard p = true.
Proof. exact lin_check_calls_guard. Qed.
Print Assumptions C14_lin_check_calls_guard.

(* the back-end methods, for all arguments the generic code generator can hand over *)
Theorem C14_x86_arith_wf :
  forall (o : binop) (t s1 s2 : xtemp),
    o <> Prod \/ (t <> s1 /\ t <> s2) -> temp_enc t -> temp_enc s1 -> temp_enc s2 -> W (x_arith o t s1 s2).
Proof. exact W_arith. Qed.
Print Assumptions C14_x86_arith_wf.
Theorem C14_x86_table_jump_wf :
  forall (t : xtemp) (k : N), temp_enc t -> (k < XTORS_MAX)%N -> W (x_add_and_jump t (jump_length k)).
Proof. exact W_add_and_jump. Qed.
Print Assumptions C14_x86_table_jump_wf.
Theorem C14_x86_print_wf : forall (nl : bool) (s : xtemp) (c : ctx), temp_enc s -> W (x_print nl s c).
Proof. exact W_print. Qed.
Print Assumptions C14_x86_print_wf.
Theorem C14_x86_erase_wf : forall (t : xtemp) (lc : N), temp_enc t -> W (fst (x_erase_block t lc)).
Proof. exact W_erase. Qed.
Print Assumptions C14_x86_erase_wf.
Theorem C14_x86_share_wf :
  forall (t : xtemp) (n lc : N), temp_enc t -> (n < SUBST_MAX)%N -> W (fst (x_share_block_n t n lc)).
Proof. exact W_share. Qed.
Print Assumptions C14_x86_share_wf.
Theorem C14_x86_store_wf :
  forall (to_store remaining : ctx) (lc : N) (c : list xcode) (lc' : N), x_store to_store remaining lc = Ok (c, lc') -> W c.
Proof. exact W_x_store. Qed.
Print Assumptions C14_x86_store_wf.
Theorem C14_x86_load_wf :
  forall (to_load existing : ctx) (lc : N) (c : list xcode) (lc' : N), x_load to_load existing lc = Ok (c, lc') -> W c.
Proof. exact W_x_load. Qed.
Print Assumptions C14_x86_load_wf.
Theorem C14_x86_prologue_epilogue_wf : (forall n s, setup n = Ok s -> W s) /\ W cleanup.
Proof. exact (conj W_setup W_cleanup). Qed.
Print Assumptions C14_x86_prologue_epilogue_wf.
(* what W gives for a body: the four facts asm_wf asks of the instructions *)
Theorem C14_x86_body_predicate :
  forall body, W body ->
    (forall l, In l (flat_map X86Wf.referenced body) -> is_hash_label l = false) /\
    (forall l, In l (calls body) -> l = "print_i64"%string \/ l = "println_i64"%string) /\
    externs body = [] /\ (forall c, In c body -> instr_wf c = true).
Proof. exact W_parts. Qed.
Print Assumptions C14_x86_body_predicate.

(* the hypotheses are satisfiable: the linearized stage outputs of the five example programs (mutual recursion;
   shared continuations; lists; labels and goto; a corecursive stream) pass every guard *)
Theorem C14_x86_compile_asm_wf_nonvacuous :
  wf_guard_x86 (lin_of ex_calls) = true /\ wf_guard_x86 (lin_of ex_shared) = true /\ wf_guard_x86 (lin_of ex_data) = true /\
  wf_guard_x86 (lin_of ex_labels) = true /\ wf_guard_x86 (lin_of ex_codata) = true /\
  size_guard (lin_of ex_calls) = true /\ size_guard (lin_of ex_shared) = true /\ size_guard (lin_of ex_data) = true /\
  size_guard (lin_of ex_labels) = true /\ size_guard (lin_of ex_codata) = true.
Proof. exact wf_guard_examples. Qed.
Print Assumptions C14_x86_compile_asm_wf_nonvacuous.

(* the linear discipline cannot be dropped: a multiplication whose target is an operand in a spill slot *)
Theorem C14_x86_compile_asm_wf_lin_needed :
  labels_guard mul_alias_prog = true /\ calls_guard mul_alias_prog = true /\ lin_check_prog mul_alias_prog = false /\
  plain_names mul_alias_prog = true /\ plain_types mul_alias_prog = true /\ imm_guard mul_alias_prog = true /\
  exists cs n lc', x86_compile mul_alias_prog 0 = Ok (cs, n, lc') /\
    asm_wf cs = Some "operand not encodable or no such instruction form"%string /\
    In (IMULMR STACK (stack_offset 2) TEMP) cs.
Proof. exact asm_wf_lin_check_needed. Qed.
Print Assumptions C14_x86_compile_asm_wf_lin_needed.

(* ======================= asm_wf and code_small as THEOREMS for AArch64 =======================
   PROVED (Sem/WfGuard64.v, Proof/CodegenForallLinP.v, Proof/A64WfAll.v, Proof/A64WfProg.v, Proof/A64WfCor.v):
   (j) EVERY instruction the AArch64 code generator and the routine wrapper emit passes the checker Sem/A64Wf.asm_wf
       that the run-time check applies to the real output: labels defined once, every referenced label defined (and
       not a '#'-mark), the entry symbol defined, BL only to the two print routines and no label equal to one, every
       operand encodable in its instruction form - register classes (Xn, n <= 29), ADD/SUB/CMP immediates (12 bits,
       optionally LSL 12), MOVZ/MOVN/MOVK chunks and shifts, LDR/STR scaled offsets (spill slots 0..2040, field
       offsets 16..72, the caller-save bracket of print), LDP/STP of prologue / epilogue -, and every branch target
       within the reach of its form (B.cond / ADR +-1 MiB: the routine is shorter).
       Hypotheses, all boolean on the PROGRAM: labels_guard, lin_check_prog (gives calls_guard), plain names / types,
       reach_guard_a64 (28 + cg_fine_defs 14 74 < 262143 instructions: a two-weight refinement of the size theorem
       of C19, Proof/SizeCodegenFine.v, SizeA64Fine.v).  No hypothesis on
       literals: every 64-bit pattern is synthesised from half-words.  No hypothesis on the size of a Substitute: the
       increment of a reference count is below 4096 because every copy of a variable has its own temporary.
              No hypothesis on the number of xtors: the table dispatch `ADD Xt, Xt, #4k` is unencodable beyond 1023 xtors
       (finding "tag dispatch immediate"), so the offset is synthesised in X3 when it does not fit; the variant
       without that, A64.old_a_add_and_jump, fails: C14_a64_compile_asm_wf_xtors_regression.  The reach is a REAL limit (known finding
       a64-branch-reach: a conditional over more than 1 MiB of code, docs/C14.md), which the guard over-approximates.
   (k) per-method lemmas `A64WfAll.W (method args)`; code_small under the size_guard of x86-64. *)
From SCC Require Import Sem.WfGuard64 Proof.SizeA64Fine Proof.A64WfAll Proof.A64WfProg Proof.A64WfCor Proof.A64HSimExample Proof.A64HSimExampleW Proof.AxHeapExample.

Theorem C14_a64_compile_asm_wf :
  forall (p : prog) (lc : N) (cs : list A64.acode) (n : nat) (lc' : N),
    labels_guard p = true -> lin_check_prog p = true ->
    plain_names p = true -> plain_types p = true -> reach_guard_a64 p = true ->
    A64.a64_compile p lc = Ok (cs, n, lc') -> A64Wf.asm_wf cs = None.
Proof. exact a64_compile_asm_wf. Qed.
Print Assumptions C14_a64_compile_asm_wf.

Theorem C14_a64_compile_code_small :
  forall (p : prog) (lc : N) (cs : list A64.acode) (n : nat) (lc' : N),
    lin_check_prog p = true -> size_guard p = true ->
    A64.a64_compile p lc = Ok (cs, n, lc') -> A64SimAddr.code_small cs = true.
Proof. exact a64_compile_code_small. Qed.
Print Assumptions C14_a64_compile_code_small.
Theorem C14_a64_compile_code_small_reach :
  forall (p : prog) (lc : N) (cs : list A64.acode) (n : nat) (lc' : N),
    lin_check_prog p = true -> reach_guard_a64 p = true ->
    A64.a64_compile p lc = Ok (cs, n, lc') -> A64SimAddr.code_small cs = true.
Proof. exact a64_compile_code_small_reach. Qed.
Print Assumptions C14_a64_compile_code_small_reach.
(* the bound of the reach guard: a two-weight refinement of the size theorem of C19 (14 instructions per simple unit,
   74 per unit of a memory operation), never worse than it *)
Theorem C14_a64_compile_fine_size :
  forall (p : prog) (lc : N) (r : list A64.acode) (n : nat) (lc' : N),
    SizeWf.sub_wf_prog p = true -> A64.a64_compile p lc = Ok (r, n, lc') -> (AxSize.len r <= a64_fine_bound p)%N.
Proof. exact a64_compile_fine_size. Qed.
Print Assumptions C14_a64_compile_fine_size.
Theorem C14_a64_fine_bound_le :
  forall ds : list def, (cg_fine_defs A64_K0 A64_KM ds <= A64_KM * AxSize.cg_bound_defs ds)%N.
Proof. exact (cg_fine_defs_le A64_K0 A64_KM ltac:(vm_compute; discriminate)). Qed.
Print Assumptions C14_a64_fine_bound_le.

(* the back-end methods, for all arguments the generic code generator can hand over *)
Theorem C14_a64_arith_wf :
  forall (o : binop) (t s1 s2 : A64.atemp),
    A64WfAll.temp_enc t -> A64WfAll.temp_enc s1 -> A64WfAll.temp_enc s2 -> A64WfAll.W (A64.a_arith o t s1 s2).
Proof. exact A64WfAll.W_arith. Qed.
Print Assumptions C14_a64_arith_wf.
Theorem C14_a64_load_immediate_wf :
  forall (t : A64.atemp) (i : Z), A64WfAll.temp_enc t -> A64WfAll.W (A64.a_load_immediate t i).
Proof. exact A64WfAll.W_load_immediate. Qed.
Print Assumptions C14_a64_load_immediate_wf.
Theorem C14_a64_table_jump_wf :
  forall (t : A64.atemp) (i : Z), A64WfAll.temp_enc t -> A64WfAll.W (A64.a_add_and_jump t i).
Proof. exact A64WfAll.W_add_and_jump. Qed.
Print Assumptions C14_a64_table_jump_wf.
(* the variant A64.old_a_add_and_jump (always the ADD immediate): only below 1024 xtors *)
Theorem C14_a64_old_table_jump_wf :
  forall (t : A64.atemp) (k : N),
    A64WfAll.temp_enc t -> (k < A64_XTORS_MAX)%N -> A64WfAll.W (A64.old_a_add_and_jump t (A64.jump_length k)).
Proof. exact A64WfAll.W_old_add_and_jump. Qed.
Print Assumptions C14_a64_old_table_jump_wf.
Theorem C14_a64_print_wf :
  forall (nl : bool) (s : A64.atemp) (c : ctx), A64WfAll.temp_enc s -> A64WfAll.W (A64.a_print nl s c).
Proof. exact A64WfAll.W_print. Qed.
Print Assumptions C14_a64_print_wf.
Theorem C14_a64_erase_wf :
  forall (t : A64.atemp) (lc : N), A64WfAll.temp_enc t -> A64WfAll.W (fst (A64.a_erase_block t lc)).
Proof. exact A64WfAll.W_erase. Qed.
Print Assumptions C14_a64_erase_wf.
Theorem C14_a64_share_wf :
  forall (t : A64.atemp) (n lc : N),
    A64WfAll.temp_enc t -> (n < A64_SUBST_MAX)%N -> A64WfAll.W (fst (A64.a_share_block_n t n lc)).
Proof. exact A64WfAll.W_share. Qed.
Print Assumptions C14_a64_share_wf.
Theorem C14_a64_store_wf :
  forall (to_store remaining : ctx) (lc : N) (c : list A64.acode) (lc' : N),
    A64.a_store to_store remaining lc = Ok (c, lc') -> A64WfAll.W c.
Proof. exact A64WfAll.W_a_store. Qed.
Print Assumptions C14_a64_store_wf.
Theorem C14_a64_load_wf :
  forall (to_load existing : ctx) (lc : N) (c : list A64.acode) (lc' : N),
    A64.a_load to_load existing lc = Ok (c, lc') -> A64WfAll.W c.
Proof. exact A64WfAll.W_a_load. Qed.
Print Assumptions C14_a64_load_wf.
Theorem C14_a64_prologue_epilogue_wf : (forall n s, A64.setup n = Ok s -> A64WfAll.W s) /\ A64WfAll.W A64.cleanup.
Proof. exact (conj A64WfAll.W_setup A64WfAll.W_cleanup). Qed.
Print Assumptions C14_a64_prologue_epilogue_wf.
(* the spill slots and field offsets are encodable scaled offsets *)
Theorem C14_a64_offsets_encodable :
  (forall p : N, N.ltb p A64.SPILL_NUM = true -> A64Wf.uoff8 (A64.stack_offset p) = true) /\
  (forall (n : tnum) (o : N), N.leb o A64.FIELDS_PER_BLOCK = true -> A64Wf.uoff8 (A64.field_offset n o) = true).
Proof. exact (conj A64WfAll.stack_offset_ok A64WfAll.field_offset_ok). Qed.
Print Assumptions C14_a64_offsets_encodable.
(* what W gives for a body: the four facts asm_wf asks of the instructions *)
Theorem C14_a64_body_predicate :
  forall body, A64WfAll.W body ->
    (forall l, In l (flat_map A64Wf.referenced body) -> A64Wf.is_hash_label l = false) /\
    (forall l, In l (A64Wf.calls body) -> l = "print_i64"%string \/ l = "println_i64"%string) /\
    A64Wf.globals body = [] /\ (forall c, In c body -> A64Wf.instr_wf c = true).
Proof. exact A64WfProg.W_parts. Qed.
Print Assumptions C14_a64_body_predicate.

(* the hypotheses are satisfiable: the linearized stage outputs of the five example programs of C01 and the two heap
   examples of C07 (lists, a five-field record in two blocks, closures; the second one with spill slots) *)
Theorem C14_a64_compile_asm_wf_nonvacuous :
  wf_guard_a64 (lin_of ex_calls) = true /\ wf_guard_a64 (lin_of ex_shared) = true /\
  wf_guard_a64 (lin_of ex_data) = true /\ wf_guard_a64 (lin_of ex_labels) = true /\
  wf_guard_a64 (lin_of ex_codata) = true /\ wf_guard_a64 hx_lin = true /\ wf_guard_a64 hxw_lin = true.
Proof. exact wf_guard_a64_examples. Qed.
Print Assumptions C14_a64_compile_asm_wf_nonvacuous.

(* regression (finding "tag dispatch immediate"): 1026 destructors, invoke of the last one - old_a64_compile emits
   `ADD X5, X5, #4100` and fails asm_wf, a64_compile emits `MOVZ X3, #4100; ADD X5, X5, X3` and passes *)
Theorem C14_a64_compile_asm_wf_xtors_regression :
  let p := wide_type_prog 1026 in
  wf_guard_a64 p = true /\ old_imm_guard_a64 p = false /\
  (exists cs n lc', old_a64_compile p 0 = Ok (cs, n, lc') /\
     A64Wf.asm_wf cs = Some "operand not encodable in its instruction form"%string /\
     In (A64.ADDI (A64.X 5) (A64.X 5) 4100) cs) /\
  (exists cs n lc', A64.a64_compile p 0 = Ok (cs, n, lc') /\ A64Wf.asm_wf cs = None /\
     In (A64.MOVZ (A64.X 3) 4100 0) cs /\ In (A64.ADD (A64.X 5) (A64.X 5) (A64.X 3)) cs).
Proof. exact asm_wf_xtors_regression. Qed.
Print Assumptions C14_a64_compile_asm_wf_xtors_regression.

(* ======================= asm_wf and code_small as THEOREMS for RISC-V =======================
   PROVED (Sem/WfGuard64.v, Proof/RVWfAll.v, Proof/RVWfCor.v):
   (l) EVERY instruction the RISC-V code generator emits passes the checker Sem/RVWf.asm_wf that the run-time check
       applies to the real output: labels (with the routine's `cleanup`) defined once, every referenced label defined,
       registers x0..x31, ADDI / JALR / LW / SW with a 12-bit signed immediate (field offsets 16..72, reference-count
       increments, the table dispatch), LI with a 64-bit value.  Hypotheses, all boolean on the PROGRAM: labels_guard,
       lin_check_prog (gives calls_guard), imm_guard_rv (literals 64-bit; a type declares fewer than 2^61 xtors).  The
       table dispatch `ADDI X1, Xt, 4k` is unencodable beyond 511 xtors (finding "tag dispatch immediate"), so a larger offset
       goes through `LI X1`; the variant without that fails: C14_rv_compile_asm_wf_xtors_regression.
   (m) code_small under the size_guard of x86-64. *)
From SCC Require Import Proof.RVWfAll Proof.RVWfCor Proof.RVHSimExample.

Theorem C14_rv_compile_asm_wf :
  forall (p : prog) (lc : N) (cs : list RV.rcode) (n : nat) (lc' : N),
    labels_guard p = true -> lin_check_prog p = true -> imm_guard_rv p = true ->
    RV.rv_compile p lc = Ok (cs, n, lc') -> RVWf.asm_wf cs = None.
Proof. exact rv_compile_asm_wf. Qed.
Print Assumptions C14_rv_compile_asm_wf.

Theorem C14_rv_compile_code_small :
  forall (p : prog) (lc : N) (cs : list RV.rcode) (n : nat) (lc' : N),
    lin_check_prog p = true -> size_guard p = true ->
    RV.rv_compile p lc = Ok (cs, n, lc') -> RVSimAddr.code_small cs = true.
Proof. exact rv_compile_code_small. Qed.
Print Assumptions C14_rv_compile_code_small.

(* the back-end methods, for all arguments the generic code generator can hand over *)
Theorem C14_rv_table_jump_wf :
  forall (t : RV.reg) (i : Z), RVWfAll.reg_enc t -> lit64 i = true -> RVWfAll.W (RV.r_add_and_jump t i).
Proof. exact RVWfAll.W_add_and_jump_any. Qed.
Print Assumptions C14_rv_table_jump_wf.
(* the ADDI-only variant: below 512 xtors *)
Theorem C14_rv_old_table_jump_wf :
  forall (t : RV.reg) (k : N),
    RVWfAll.reg_enc t -> (k < RV_OLD_XTORS_MAX)%N -> RVWfAll.W (RV.old_r_add_and_jump t (RV.jump_length k)).
Proof. exact RVWfAll.W_old_add_and_jump. Qed.
Print Assumptions C14_rv_old_table_jump_wf.
Theorem C14_rv_load_immediate_wf :
  forall (t : RV.reg) (i : Z), RVWfAll.reg_enc t -> lit64 i = true -> RVWfAll.W (RV.r_load_immediate t i).
Proof. exact RVWfAll.W_load_immediate. Qed.
Print Assumptions C14_rv_load_immediate_wf.
Theorem C14_rv_erase_wf : forall (t : RV.reg) (lc : N), RVWfAll.reg_enc t -> RVWfAll.W (fst (RV.r_erase_block t lc)).
Proof. exact RVWfAll.W_erase. Qed.
Print Assumptions C14_rv_erase_wf.
Theorem C14_rv_share_wf :
  forall (t : RV.reg) (n lc : N), RVWfAll.reg_enc t -> (n < RV_SUBST_MAX)%N -> RVWfAll.W (fst (RV.r_share_block_n t n lc)).
Proof. exact RVWfAll.W_share. Qed.
Print Assumptions C14_rv_share_wf.
Theorem C14_rv_store_wf :
  forall (to_store remaining : ctx) (lc : N) (c : list RV.rcode) (lc' : N),
    RV.r_store to_store remaining lc = Ok (c, lc') -> RVWfAll.W c.
Proof. exact RVWfAll.W_r_store. Qed.
Print Assumptions C14_rv_store_wf.
Theorem C14_rv_load_wf :
  forall (to_load existing : ctx) (lc : N) (c : list RV.rcode) (lc' : N),
    RV.r_load to_load existing lc = Ok (c, lc') -> RVWfAll.W c.
Proof. exact RVWfAll.W_r_load. Qed.
Print Assumptions C14_rv_load_wf.

(* the hypotheses are satisfiable *)
Theorem C14_rv_compile_asm_wf_nonvacuous :
  wf_guard_rv rh_lin = true /\
  wf_guard_rv (lin_of ex_calls) = true /\ wf_guard_rv (lin_of ex_shared) = true /\
  wf_guard_rv (lin_of ex_data) = true /\ wf_guard_rv (lin_of ex_labels) = true /\
  wf_guard_rv (lin_of ex_codata) = true.
Proof. exact wf_guard_rv_examples. Qed.
Print Assumptions C14_rv_compile_asm_wf_nonvacuous.

(* regression as on AArch64: 514 destructors - `ADDI X1, X5, 2052` fails asm_wf, `LI X1, 2052; ADD X1, X5, X1` passes *)
Theorem C14_rv_compile_asm_wf_xtors_regression :
  let p := RVWfCor.wide_type_prog 514 in
  wf_guard_rv p = true /\ old_imm_guard_rv p = false /\
  (exists cs n lc', RVWfCor.old_rv_compile p 0 = Ok (cs, n, lc') /\
     RVWf.asm_wf cs = Some "operand not encodable in its instruction form"%string /\
     In (RV.ADDI RV.TEMP 5%N 2052) cs) /\
  (exists cs n lc', RV.rv_compile p 0 = Ok (cs, n, lc') /\ RVWf.asm_wf cs = None /\
     In (RV.LI RV.TEMP 2052) cs /\ In (RV.ADD RV.TEMP 5%N RV.TEMP) cs).
Proof. exact RVWfCor.asm_wf_xtors_regression. Qed.
Print Assumptions C14_rv_compile_asm_wf_xtors_regression.
