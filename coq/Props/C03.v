(* C03: focusing preserves Core semantics including the order of effects; afterwards all binders
   along every path of a definition are distinct and distinct from every free name.
   Only statements here; proofs live in Proof/.  Models: Model/Uniquify.v, Model/Focus.v;
   executable forms of the property: Model/FocusCheck.v. *)
From Coq Require Import List ZArith NArith String Bool.
From SCC Require Import Lang.CoreSyn Model.Backend Model.Uniquify Model.Focus Model.FocusCheck
     Sem.AxSem Sem.CoreSem Proof.SubstProof Proof.FocusTheorems Proof.FocusExtra Proof.FocusExamples Proof.FocusSem
     Proof.FocusKont Proof.FocusRel Proof.FocusSim Proof.FocusRun Proof.FocusFrag Proof.FocusPres Proof.FocusPresExamples
     Proof.UqAeq Proof.UqPres Proof.UqCompose Proof.FocusRefute Proof.FocusTyped.
From SCC Require Import Model.FocusGuard.
Import ListNotations.

(* ---- uniqueness of binders -------------------------------------------------------------------
   Precondition (boolean checkers, FocusCheck.v):
     pre_check p : per definition, every variable id <= max_id, the binders whose id is not 0 are
                   pairwise distinct, every occurrence with an id other than 0 lies below a binder
                   with that id.  (Output of fun2core: every id is 0 and max_id = 0.)
     focus_wf p  : no Literal/Op in a consumer position, no cut of two xtors, no cut of an operator
                   against a destructor (implied by well-typedness).
   Conclusion: the Rust-modelled `Prog::focus` returns (no panic), and unique_check holds: in every
   definition the binder ids (parameters, mu/mutilde variables, clause contexts) are pairwise distinct
   along every path; no free name has the id of a binder; every binder id not inherited from the
   input is > the input's max_id; the output's max_id is >= every id and >= the input's max_id. *)
Theorem C03_focus_unique :
  forall p, pre_check p = true -> focus_wf p = true ->
  exists q, focus_prog p = Ok q /\ unique_check p q = true.
Proof. exact focus_unique_thm. Qed.
Print Assumptions C03_focus_unique.

(* the same for the uniquify pass alone; its output again satisfies the precondition *)
Theorem C03_uniquify_unique :
  forall p, pre_check p = true -> focus_wf p = true ->
  exists q, uniquify_prog p = Ok q /\ uniquified_check p q = true /\ focus_wf q = true /\ pre_check q = true.
Proof. exact uniquify_unique_thm. Qed.
Print Assumptions C03_uniquify_unique.

(* real translation outputs satisfy the precondition (and, computed, the conclusion) *)
Theorem C03_real_inputs_satisfy_precondition :
  pre_ok ex_case_of = true /\ pre_ok ex_lists = true /\ pre_ok ex_gen3 = true.
Proof. exact (conj ex_case_of_pre (conj ex_lists_pre ex_gen3_pre)). Qed.
Print Assumptions C03_real_inputs_satisfy_precondition.

(* The precondition cannot be weakened to "every id <= max_id": uniquify renames only binders
   with id 0, so two binders that already share a non-zero id stay as they are.
   Witness:  def main() { <1 | mutilde x_1. <2 | mutilde x_1. exit x_1>> }  with max_id = 1
   (confirmed on the Rust code: harness case hand:dup-nonzero). *)
Theorem C03_focus_unique_ids_below_max_only_refuted :
  exists p, forallb (ids_le_def (cpmax p)) (cpdefs p) = true /\ focus_wf p = true /\
            exists q, focus_prog p = Ok q /\ unique_check p q = false.
Proof. exact focus_unique_ids_below_max_only_refuted. Qed.
Print Assumptions C03_focus_unique_ids_below_max_only_refuted.

(* ... and an id above max_id lets focusing invent an identifier that is already in use:
   def main() { <1 | mutilde x_1. exit (x_1 + 5)> } with max_id = 0 becomes
   <1 | mutilde x_1. <5 | mutilde x_1. <x_1 + x_1 | mutilde x_2. exit x_2>>>
   (confirmed on the Rust code: harness case hand:id-above-max). *)
Theorem C03_focus_captures_when_id_above_max_refuted :
  exists p q, focus_wf p = true /\ focus_prog p = Ok q /\ captured_sum q = true.
Proof. exact focus_captures_when_id_above_max_refuted. Qed.
Print Assumptions C03_focus_captures_when_id_above_max_refuted.

(* ---- no panic ---------------------------------------------------------------------------------
   None of the panics of subst_sim ("cannot happen"), focus ("Cannot happen", "Constructors and
   destructors should always be focused in cuts directly", "Arithmetic operators should always be
   focused in cuts directly") is reachable, and the fuel of the uniquify model suffices, on every
   program of the right shape - whatever its identifiers. *)
Theorem C03_focus_total :
  forall p, focus_wf p = true -> exists q, focus_prog p = Ok q.
Proof. exact focus_total_thm. Qed.
Print Assumptions C03_focus_total.

(* ---- shadow-aware substitution ------------------------------------------------------------------
   subst_sim stops at a binder with the same (name, id), whatever its chirality: below `mu v`
   (resp. a clause binding v) the pairs keyed by v are dropped from BOTH lists. *)
Theorem C03_subst_sim_shadow_mu :
  forall c c' v s ty ps cs,
    subst_term c (CMu c' v s ty) ps cs =
    rbind (subst_stmt s (subst_remove v ps) (subst_remove v cs)) (fun s' => Ok (CMu c' v s' ty)).
Proof. exact subst_shadow_mu. Qed.
Print Assumptions C03_subst_sim_shadow_mu.

Theorem C03_subst_sim_shadow_clause :
  forall c' x ctx body ps cs,
    subst_clause (CClause c' x ctx body) ps cs =
    rbind (subst_stmt body (subst_remove_ctx ctx ps) (subst_remove_ctx ctx cs))
          (fun b' => Ok (CClause c' x ctx b')).
Proof. exact subst_shadow_clause. Qed.
Print Assumptions C03_subst_sim_shadow_clause.

(* a key that a binder shadows is never looked up below it *)
Theorem C03_subst_sim_shadowed_key_irrelevant :
  forall v t ps cs, subst_find v (subst_remove v ((v, t) :: ps)) = subst_find v (subst_remove v ps) /\
                    subst_find v (subst_remove v cs) = None.
Proof. exact subst_shadowed_key. Qed.
Print Assumptions C03_subst_sim_shadowed_key_irrelevant.

(* substituting variables that do not occur free is the identity (arbitrary replacement terms) *)
Theorem C03_subst_sim_not_free_identity :
  forall s ps cs, wf_stmt s = true ->
    (forall k, In k (map fst ps ++ map fst cs) -> ~ In k (fv_stmt s)) ->
    subst_stmt s ps cs = Ok s.
Proof. exact subst_not_free_stmt. Qed.
Print Assumptions C03_subst_sim_not_free_identity.

(* ---- semantic preservation ----------------------------------------------------------------------
   Full statement (evaluated by modelrun `focus` on every case: run_core on the input vs
   run_fs on the Rust output): a run of the original whose outcome is an exit value (OExit) or
   undefined arithmetic (OUndef, e.g. division by zero) is reproduced, prints in the same order, by
   the focused program.  "A defined run" below means such a run: good_end of Proof/FocusRun.v, wider
   than `defined` of Sem/AxSem.v (exit only).  Stuck and out-of-fuel runs are not covered.
   With the shape predicates as the only hypotheses it is FALSE
   (C03_focus_preserves_statement_refuted, an ill-typed witness); it is proved with the additional
   hypotheses cs_prog and clash_free_prog / sg_prog / static_ok
   (C03_uniquify_focus_preserves_partial / _fragment / _static). *)
Definition C03_focus_preserves_statement : Prop :=
  forall p q args fuel, pre_check p = true -> focus_wf p = true -> focus_prog p = Ok q ->
    let o := run_core fuel p args in
    ((exists z, snd o = OExit z) \/ (exists w, snd o = OUndef w)) ->
    exists fuel', run_fs fuel' q args = o.

(* Proved fragment ("arguments that are values or operators"): the entry definition is straight-line
   integer code - ifc / print / exit whose arguments are operator trees over literals and the
   parameters, no mu, no data/codata, no calls - closed over its producer parameters, whose ids are
   not 0 (e.g. a parameterless main; then uniquify leaves the definition alone).  Unlike the theorems
   from C03_bind_correct on (every construct, but defined runs only and further hypotheses) this one
   gives EQUAL observations for all large fuel. *)
Theorem C03_focus_preserves_partial :
  forall p q args,
    pre_check p = true -> focus_wf p = true -> entry_ok p = true -> focus_prog p = Ok q ->
    exists n, forall fuel, (n <= fuel)%nat ->
      run_fs fuel q args = run_core fuel p args /\ snd (run_core fuel p args) <> OOutOfFuel.
Proof. exact focus_preserves_straight_line. Qed.
Print Assumptions C03_focus_preserves_partial.

(* ---- semantic preservation, every construct of the language ----------------------------------------
   A simulation between the Core machine on a program whose identifiers are all <= max_id (what
   `uniquify` returns) and the same machine on the embedding of its focused form (run_fs).
   Relation (Proof/FocusRel.v): values component-wise; a closure over code s is related to the closure
   over `focus s`; the machine-internal continuation values have no homomorphic image, focusing turns
   them into code:  KRet m ~ mu~-closure over the statement `bind`'s continuation built,
   PDelay m ~ by-name thunk over it;  target environment = source environment + the fresh bindings.
   Each source transition is matched by zero or more target transitions (Proof/FocusMain.v sim_step:
   every constructor of the language, every arm of Cut::focus, every Bind impl).

   KIND CLASH (clash_config, Model/FocusGuard.v; explained in the header of Proof/FocusSim.v): the
   untyped machine lets a by-name producer value
   (PThunk/PDelay/a mu at a codata cut) meet a by-value return continuation (KRet); the two machines
   treat that differently (after focusing KRet is a mu~-closure, which the machine serves before it
   forces a thunk).  Typing excludes it (KRet comes from a mu of a NON-codata type, by-name values have
   codata types; proved for the checker tc_prog, C03_typed_clash_free below).  The theorems take either
     - the run-time hypothesis clash_free (Model/FocusGuard.v: no such configuration in the first `fuel`
       transitions), or
     - the static guard sg_prog bn kr with bn && kr = false (Model/FocusGuard.v; that it excludes
       clashes: Proof/FocusFrag.v):
         sg_prog false _ : no mu-abstraction of a codata type in an argument position, no cut at a
                           codata type whose producer is a mu  (then no by-name value ever exists);
         sg_prog _ false : no producer mu-abstraction of a non-codata type in an argument position
                           (then no KRet ever exists).
   Everything else of the language is covered: operators nested to any depth with effects in the
   operands, constructor/destructor/call/ifc/print/exit arguments, mu/mu~, case/cocase, calls,
   recursion, data and codata values. *)

(* `Bind` as a lemma of its own: [bind a k] first evaluates the argument a exactly as the machine does
   (innermost non-values first, left to right, each once), then behaves as what k builds for the name
   of the value - provided k is the code of the machine continuation m (mk_rel). *)
Theorem C03_bind_correct :
  forall ps qt M0, focused_defs M0 ps qt ->
  forall a k c mc s' m2 e e' m fuel out,
    bind_arg a k mc = Ok (s', m2) -> (M0 <= c)%N -> (c <= mc)%N -> ids_le_arg M0 a = true ->
    env_rel ps M0 e e' -> mk_rel ps M0 c m k e' ->
    clash_free ps fuel (Arg a e m) = true -> good_end (snd (crun fuel ps (Arg a e m) out)) ->
    exists fuel', crun fuel' qt (Run (fs2c_stmt s') e') out = crun fuel ps (Arg a e m) out.
Proof. exact bind_correct. Qed.
Print Assumptions C03_bind_correct.

(* statements (every arm of Cut::focus, IfC, Call, PrintI64, Exit) *)
Theorem C03_focus_stmt_correct :
  forall ps qt M0, focused_defs M0 ps qt ->
  forall s mc s' m2 e e' fuel out,
    focus_stmt s mc = Ok (s', m2) -> (M0 <= mc)%N -> ids_le_stmt M0 s = true -> env_rel ps M0 e e' ->
    clash_free ps fuel (Run s e) = true -> good_end (snd (crun fuel ps (Run s e) out)) ->
    exists fuel', crun fuel' qt (Run (fs2c_stmt s') e') out = crun fuel ps (Run s e) out.
Proof. exact focus_stmt_correct. Qed.
Print Assumptions C03_focus_stmt_correct.

(* Prog::focus = uniquify, then focus: the focused program reproduces every defined run of the
   UNIQUIFIED program p1 that meets no kind clash.  Gap to C03_focus_preserves_statement: the clash
   hypothesis, and run_core p1 = run_core p (C03_uniquify_preserves below). *)
Theorem C03_focus_preserves_uniquified_partial :
  forall p p1 q args fuel,
    pre_check p = true -> focus_wf p = true -> uniquify_prog p = Ok p1 -> focus_prog p = Ok q ->
    clash_free_prog fuel p1 args = true -> good_end (snd (run_core fuel p1 args)) ->
    exists fuel', run_fs fuel' q args = run_core fuel p1 args.
Proof. exact focus_prog_preserves_uniquified. Qed.
Print Assumptions C03_focus_preserves_uniquified_partial.

(* the same with the static guard in place of the run-time hypothesis *)
Theorem C03_focus_preserves_guarded_partial :
  forall bn kr p p1 q args fuel,
    pre_check p = true -> focus_wf p = true -> uniquify_prog p = Ok p1 -> focus_prog p = Ok q ->
    bn && kr = false -> sg_prog bn kr p1 = true ->
    good_end (snd (run_core fuel p1 args)) ->
    exists fuel', run_fs fuel' q args = run_core fuel p1 args.
Proof. exact focus_prog_preserves_guarded. Qed.
Print Assumptions C03_focus_preserves_guarded_partial.

(* the hypotheses are satisfiable by non-trivial programs: nested effectful operands whose print order
   1 2 3 is observable; effectful constructor and call arguments with a case; the fun2core output of
   examples/Lists/Lists.sc (guard "no by-name value", both programs run to the same exit) *)
Theorem C03_focus_preserves_nonvacuous :
  checks ex_order false true 100 200 [] ([(false, 1); (false, 2); (false, 3)], OExit 70)%Z = true /\
  checks ex_data false true 100 300 [] ([(false, 1); (false, 2); (false, 3); (true, 1)], OExit 1)%Z = true /\
  checks_str ex_lists (100 * 50) (100 * 200) = true.
Proof. exact (conj ex_order_ok (conj ex_data_ok ex_lists_ok)). Qed.
(* ... and a program mixing by-name and by-value mu-abstractions (outside both syntactic guards, typed) *)
Theorem C03_focus_preserves_typed_nonvacuous :
  negb (sg_prog false true ex_mixed) && negb (sg_prog true false ex_mixed) &&
  pre_check ex_mixed && focus_wf ex_mixed && cs_prog ex_mixed && tc_prog ex_mixed && tc_entry ex_mixed && static_ok ex_mixed &&
  match focus_prog ex_mixed with
  | Ok q => obs_eqb (run_core 100 ex_mixed []) ([(false, 1)], OExit 42)%Z && obs_eqb (run_fs 300 q []) ([(false, 1)], OExit 42)%Z
  | Err _ => false
  end = true.
Proof. exact ex_mixed_ok. Qed.
Print Assumptions C03_focus_preserves_typed_nonvacuous.
Print Assumptions C03_focus_preserves_nonvacuous.

(* ---- uniquify preserves behaviour -------------------------------------------------------------------
   alpha-renaming: the uniquified program has the SAME observation as the input for every fuel and every
   argument tuple (stuck and out-of-fuel runs included; lock-step simulation, Proof/UqSim.v).
   Hypotheses: every identifier <= max_id (part of pre_check; otherwise a fresh name can capture, see
   C03_focus_captures_when_id_above_max_refuted), the shape focus_wf (subst_sim does not panic), and
   cs_prog (Model/FocusGuard.v): every occurrence refers to a binder of its own chirality - what a type
   system with chiralities would imply, but a hypothesis of its own here (tc_prog does not check chiralities);
   uniquify keeps separate substitution lists for variables and covariables, so an occurrence of the
   wrong chirality is left un-renamed (both programs are then stuck, with different messages).
   Binder ids may be 0 or not, mixed (the stated precondition "all ids 0" is the special case). *)
Theorem C03_uniquify_preserves :
  forall p p1,
    uniquify_prog p = Ok p1 -> focus_wf p = true -> forallb (ids_le_def (cpmax p)) (cpdefs p) = true ->
    cs_prog p = true ->
    forall fuel args, run_core fuel p1 args = run_core fuel p args.
Proof. exact uniquify_preserves. Qed.
Print Assumptions C03_uniquify_preserves.

(* ---- uniquify + focus: C03_focus_preserves_statement on the fragment ----------------------------------
   `Prog::focus` reproduces every defined run of its input.  Beyond the hypotheses of
   C03_focus_preserves_statement: cs_prog (above) and the absence of kind clashes (KIND CLASH above), on
   the run (clash_free_prog), by the static guard sg_prog, or by typing (C03_typed_clash_free and
   C03_uniquify_focus_preserves_static below). *)
Theorem C03_uniquify_focus_preserves_partial :
  forall p q args fuel,
    pre_check p = true -> focus_wf p = true -> cs_prog p = true -> focus_prog p = Ok q ->
    clash_free_prog fuel p args = true -> good_end (snd (run_core fuel p args)) ->
    exists fuel', run_fs fuel' q args = run_core fuel p args.
Proof. exact uniquify_focus_preserves. Qed.
Print Assumptions C03_uniquify_focus_preserves_partial.

Theorem C03_uniquify_focus_preserves_fragment :
  forall bn kr p q args fuel,
    pre_check p = true -> focus_wf p = true -> cs_prog p = true -> focus_prog p = Ok q ->
    bn && kr = false -> sg_prog bn kr p = true ->
    good_end (snd (run_core fuel p args)) ->
    exists fuel', run_fs fuel' q args = run_core fuel p args.
Proof. exact uniquify_focus_preserves_guarded. Qed.
Print Assumptions C03_uniquify_focus_preserves_fragment.

(* ---- typed programs --------------------------------------------------------------------------------------
   tc_prog (Model/FocusGuard.v) is a boolean type checker for Core with exact annotations (an occurrence
   carries the type of its binder, a cut the type of both sides, xtor arguments and clause contexts follow
   the declaration of the type, call arguments the parameters of the callee); typing of machine states is
   preserved by every transition and a typed configuration is no kind clash (Proof/FocusTyped.v). *)
Theorem C03_typed_clash_free :
  forall p, tc_prog p = true -> tc_entry p = true -> forall fuel args, clash_free_prog fuel p args = true.
Proof. exact tc_clash_free_prog. Qed.
Print Assumptions C03_typed_clash_free.

(* The preservation theorem with static hypotheses only: shape (pre_check, focus_wf), chirality-consistent
   scoping (cs_prog) and static_ok = simply typed (tc_prog && tc_entry) or inside a syntactic guard.
   Quick suite (evidence/C03.json, input_distribution): 1025 of the 1027 cases inside the precondition
   satisfy all of them (tag thm-static); the other 2 fail cs_prog (tag nocs). *)
Theorem C03_uniquify_focus_preserves_static :
  forall p q args fuel,
    pre_check p = true -> focus_wf p = true -> cs_prog p = true -> static_ok p = true -> focus_prog p = Ok q ->
    good_end (snd (run_core fuel p args)) ->
    exists fuel', run_fs fuel' q args = run_core fuel p args.
Proof. exact uniquify_focus_preserves_static. Qed.
Print Assumptions C03_uniquify_focus_preserves_static.

(* ---- the unrestricted statement is false ---------------------------------------------------------------
   The shape predicates pre_check and focus_wf admit ill-typed programs, and on those focusing can change
   the behaviour.  Witness (Proof/FocusRefute.v; a covariable of type i64 used as a consumer of a codata
   type; a kind clash, clash_free_prog = false):
       codata T { }   def main() { exit (mu a:i64. < mu b:T. (print 7; <5 | b>) | a >_T) }
   before: prints 7, exit 5;  after focusing: stuck ("exit-operand": the operand is an unforced thunk).
   The input is ill-typed, so this is no defect of the compiler.  But H_focus of Props/C01.v, which repeats
   this statement, is false as a universal hypothesis; C01_compile_correct_focus_discharged_partial does
   not use it. *)
Theorem C03_focus_preserves_statement_refuted : ~ C03_focus_preserves_statement.
Proof. exact focus_preserves_statement_refuted. Qed.
Print Assumptions C03_focus_preserves_statement_refuted.
