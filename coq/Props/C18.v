(* C18  Any input yields a result or a diagnostic, never a crash.

   The substance of this property is an observation of the real code (harness `robust`, docs/C18.md): the models are
   total Gallina functions, so "terminates with a program or a reported error" holds of them by construction and is
   not restated.  What is proved here is what is NOT by construction:
     1. the literal conversion - the only semantic action of the grammar that can fail - maps every digit string to
        a value in [0, 2^63) or to the range error, and to the error exactly above i64::MAX (`-n` never overflows);
     2. the counters of the lexer and parser models never influence their answer: a `None` of [parse_text] is a
        genuine reject of the grammar model, not an exhausted counter;
     3. the stage-totality theorems of C03, C04, C05 and C12 (code generation) chained with their exact hypotheses. *)
From Coq Require Import List ZArith NArith String Ascii Bool.
From SCC Require Import Base.Sexp Lang.SynUtil Lang.FunSyn Model.Printer Model.Parser Model.NumLit.
From SCC Require Import Proof.Total Proof.ParseFuel Proof.ParseStable Proof.LexFuel.
From SCC Require Lang.CoreSyn Lang.AxSyn Model.Backend Model.Focus Model.FocusCheck Sem.FsCheck Model.Shrink
  Model.Linearize Model.LinCheck Model.Check Model.Fun2Core Model.Capacity Model.X86 Model.A64 Model.RV
  Proof.CodegenX86 Proof.CodegenA64 Proof.CodegenRV Proof.WtPreserve.
Import ListNotations.
Open Scope string_scope.

(* 1. Literals. *)
(* [num_of_digits] = `i64::from_str(s).map_err(|_| ParseError::User{..})` on the text of the terminal r"0|[1-9][0-9]*";
   [dec_value] = the decimal value of the digit string.  Compared with the real parser on every run (`robust-lit`). *)
Theorem C18_num_literal_total : forall s,
  s <> EmptyString -> all_digits s = true ->
  ((dec_value s <= 9223372036854775807)%N /\ num_of_digits s = NumOk (Z.of_N (dec_value s)))
  \/ ((9223372036854775807 < dec_value s)%N /\ num_of_digits s = NumRange).
Proof. exact num_of_digits_spec. Qed.
Print Assumptions C18_num_literal_total.

Theorem C18_num_literal_range : forall s z, num_of_digits s = NumOk z -> (0 <= z < 2 ^ 63)%Z.
Proof. exact num_of_digits_range. Qed.
Print Assumptions C18_num_literal_range.

(* the production  Lit = "-" Num  computes `-n` on a value that cannot be i64::MIN's magnitude *)
Theorem C18_negated_literal_in_range : forall s z, num_of_digits s = NumOk z -> (- 2 ^ 63 < - z <= 0)%Z.
Proof. exact neg_num_in_range. Qed.
Print Assumptions C18_negated_literal_in_range.

(* where the conversion sits in the models of C16: the lexer turns a maximal digit run into TNum (its value) ... *)
Theorem C18_lexer_number_token : forall c r,
  is_digit c = true -> c <> "0"%char ->
  scan (String c r) = LTok (TNum (dec_value (take_while is_digit (String c r)))) (skip_while is_digit (String c r)).
Proof. exact scan_number. Qed.
Print Assumptions C18_lexer_number_token.

(* ... and the two Lit productions of the parser accept it exactly when it is at most i64::MAX *)
Theorem C18_parser_literal : forall n k r,
  p_term1 (S n) (TNum k :: r) = (if lit_ok k then Some (FLit (Z.of_N k), r) else None) /\
  p_term1 (S n) (TSym SMinus :: TNum k :: r) = (if lit_ok k then Some (FLit (- Z.of_N k), r) else None).
Proof. exact parser_literal_both. Qed.
Print Assumptions C18_parser_literal.

Theorem C18_lex_then_action : forall c r n rest,
  is_digit c = true -> c <> "0"%char ->
  match scan (String c r) with
  | LTok t _ => p_term1 (S n) (t :: rest) =
                  match num_of_digits (take_while is_digit (String c r)) with NumOk z => Some (FLit z, rest) | NumRange => None end
  | _ => False
  end.
Proof. exact lex_then_action. Qed.
Print Assumptions C18_lex_then_action.

(* 2. The counters of the lexer and parser models suffice. *)
Theorem C18_lex_fuel_suffices : forall s n, String.length s < n -> lex n s = lex_string s.
Proof. exact lex_fuel_suffices. Qed.
Print Assumptions C18_lex_fuel_suffices.

(* any number of declaration iterations above |ts| and any descent fuel from 8|ts|+16 on give [parse]'s answer *)
Theorem C18_parse_fuel_suffices : forall ts m n,
  List.length ts < m -> fuel_of ts <= n -> parse_with m n ts = parse ts.
Proof. exact parse_fuel_suffices. Qed.
Print Assumptions C18_parse_fuel_suffices.

Theorem C18_parse_reject_is_genuine : forall ts,
  parse ts = None -> forall m n, List.length ts < m -> fuel_of ts <= n -> parse_with m n ts = None.
Proof. exact parse_reject_is_genuine. Qed.
Print Assumptions C18_parse_reject_is_genuine.

(* every parsing function consumes input: the reason the counters suffice *)
Theorem C18_parsers_consume : forall n,
  shorter (p_term n) /\ shorter (p_term3 n) /\ shorter (p_block n) /\ shorter (p_term2 n) /\ shorter (p_term1 n)
  /\ (forall e b, nolonger (p_postfix n e b)) /\ (forall pol, shorter (p_clause n pol)).
Proof. intros n. destruct (terms_shorter_all n). repeat split; assumption. Qed.
Print Assumptions C18_parsers_consume.

(* 3. The stages after type checking.
   Focusing (C03_focus_total), shrinking (C04_shrink_total) and the ordered-linear discipline of the linearized
   program (C05_linearize_exact; [linearize] itself is a function without an error result), each with the hypothesis
   of its own theorem.  Fully proved as stated; what it does not say is that the hypothesis of one stage follows
   from the previous stage's output - that is C12_pipeline_wt_of_check (Props/C12.v), see the end of this file. *)
Theorem C18_middle_end_total :
  forall c : CoreSyn.cprog,
    FocusCheck.focus_wf c = true ->
    exists f, Focus.focus_prog c = Backend.Ok f /\
      (FsCheck.wt_fs f = true ->
       exists a, Shrink.shrink_prog f = Shrink.SOk a /\
         (LinCheck.prog_ok a = true -> LinCheck.lin_check_prog (Linearize.linearize a) = true)).
Proof. exact middle_end_total. Qed.
Print Assumptions C18_middle_end_total.

(* Code generation (theorems of C12): on a program accepted by the ordered linear discipline every code generator
   returns Ok within capacity.  [within_capacity_*] = the program has a definition, every context reaching a
   statement has at most K_backend variables (132 / 139 / 13: the "Out of temporaries"/"Out of registers"
   assertions), main has at most 5 (x86-64) resp. 7 (AArch64) parameters ("too many arguments for main"), and - RISC-V
   only - no print_i64/println_i64 occurs (the known finding rv64-print-unimplemented is OUTSIDE this predicate). *)
Theorem C18_codegen_total_x86 : forall (l : AxSyn.prog) (lc : N),
  LinCheck.lin_check_prog l = true -> Capacity.within_capacity_x86 l = true ->
  exists code lc', X86.x86_compile l lc = Backend.Ok (code, Capacity.main_arity l, lc').
Proof. exact CodegenX86.x86_codegen_total. Qed.
Print Assumptions C18_codegen_total_x86.
Theorem C18_codegen_total_a64 : forall (l : AxSyn.prog) (lc : N),
  LinCheck.lin_check_prog l = true -> Capacity.within_capacity_a64 l = true ->
  exists code lc', A64.a64_compile l lc = Backend.Ok (code, Capacity.main_arity l, lc').
Proof. exact CodegenA64.a64_codegen_total. Qed.
Print Assumptions C18_codegen_total_a64.
Theorem C18_codegen_total_rv : forall (l : AxSyn.prog) (lc : N),
  LinCheck.lin_check_prog l = true -> Capacity.within_capacity_rv l = true ->
  exists code lc', RV.rv_compile l lc = Backend.Ok (code, Capacity.main_arity l, lc').
Proof. exact CodegenRV.rv_codegen_total. Qed.
Print Assumptions C18_codegen_total_rv.

(* "code generation fails only with a capacity error": an Err of a code-generator model on such a program means
   that the program is outside the capacity predicate *)
Theorem C18_codegen_error_means_capacity : forall (l : AxSyn.prog) (lc : N) msg,
  LinCheck.lin_check_prog l = true ->
  (X86.x86_compile l lc = Backend.Err msg -> Capacity.within_capacity_x86 l = false) /\
  (A64.a64_compile l lc = Backend.Err msg -> Capacity.within_capacity_a64 l = false) /\
  (RV.rv_compile l lc = Backend.Err msg -> Capacity.within_capacity_rv l = false).
Proof. exact codegen_error_means_capacity. Qed.
Print Assumptions C18_codegen_error_means_capacity.

(* THE COMPOSITION in the form that takes the three typing-preservation links as hypotheses (C12_pipeline_wt_partial
   without the typing conjuncts, under its C18 name, hypotheses verbatim): for every checked program whose binders are
   distinct ([barendregt]), every later stage model succeeds and code generation succeeds within capacity, IF
     H_fun2core_wt  (check p = COk -> barendregt p -> compile_prog p = Ok c, wt_core c, pre_check c),
     H_focus_wt     (typing half of focusing),   H_shrink_wt (typing half of shrinking).
   As stated H_focus_wt and H_shrink_wt are FALSE (C12_focus_preserves_typing_unguarded_refuted,
   C12_shrink_preserves_typing_refuted: mismatches between the stage checkers, no defects of the passes), so this
   implication says nothing about any program.  The composition WITHOUT a typing hypothesis is
   C12_pipeline_wt_of_check (Props/C12.v): for every program that [check] accepts, with identifier-like names
   (prog_names_ok), no declaration named like a continuation type (no_cont_decl) and declared xtor field types
   (xtor_tys_guard), every later stage model succeeds, every stage output is accepted by its checker and the three
   code generators return Ok within capacity - the same conclusion as below plus the typing conjuncts, and no
   [barendregt].  The links are also evaluated on the real stage outputs of every generated program by the
   correspondence steps of C12, and the real stages are observed not to panic by the `robust` step of this property. *)
Theorem C18_pipeline_total_partial :
  WtPreserve.H_fun2core_wt -> WtPreserve.H_focus_wt -> WtPreserve.H_shrink_wt ->
  forall src p, Check.check src = Check.COk p -> Fun2Core.barendregt p = true ->
  exists c f a,
    Fun2Core.compile_prog p = Fun2Core.Ok c /\
    Focus.focus_prog c = Backend.Ok f /\
    Shrink.shrink_prog f = Shrink.SOk a /\
    let l := Linearize.linearize a in
    LinCheck.lin_check_prog l = true /\
    (forall lc, Capacity.within_capacity_x86 l = true -> exists code lc', X86.x86_compile l lc = Backend.Ok (code, Capacity.main_arity l, lc')) /\
    (forall lc, Capacity.within_capacity_a64 l = true -> exists code lc', A64.a64_compile l lc = Backend.Ok (code, Capacity.main_arity l, lc')) /\
    (forall lc, Capacity.within_capacity_rv l = true -> exists code lc', RV.rv_compile l lc = Backend.Ok (code, Capacity.main_arity l, lc')).
Proof. exact pipeline_total_partial_lemma. Qed.
Print Assumptions C18_pipeline_total_partial.
