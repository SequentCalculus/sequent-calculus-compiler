(* C10: heap footprint is bounded by peak live data.
   Proofs in Model/Heap.v (acquire_frontier), Proof/HeapTrace.v (traces) and Proof/AxHeapProps.v (programs).

   PROVED (abstract allocator, operation traces from the initial state)
     * the allocation frontier moves only when BOTH free lists are exhausted, i.e. when the reuse
       list is just the reserved block and the deferred list is empty       [C10_frontier_moves_only_when_nothing_reusable]
     * quantitative bound: (frontier - base) / 64 <= peak + 1, where peak bounds the number of
       blocks in use (counted + deferred) over the states of the trace.  The constant is 1 (the
       block reserved in the heap register), and it is tight                 [C10_footprint_bound]
     * once the peak has been attained the frontier is EXACTLY base + (peak + 1) * 64 and never
       moves again                                                           [C10_footprint_exact]
     * the number of blocks in use is a function of the state (it does not depend on the choice
       of the ghost lists)                                                   [C10_in_use_unique]
     * space independent of the number of repetitions, in the form: two traces from the initial
       state with the same peak of blocks in use end with the same frontier; instantiated with
       setup ++ n1 x body and setup ++ n2 x body                             [C10_loop_space_constant, C10_loop_space_constant_iter]
       and: from any reachable state whose frontier stands at peak + 1 blocks, a continuation
       that stays within the peak leaves the frontier where it is           [C10_frontier_stable_after_peak]
       Relation to the property text: "a computation that repeatedly builds and drops structures"
       has a peak of simultaneously reachable blocks that does not depend on the number of
       repetitions (that is a fact about the program, given here as the hypotheses peak_bound /
       peak_attained); the theorem turns it into equal frontiers.  "Reachable" in the text is
       "counted + deferred" here: a dropped structure stays counted beneath its deferred root until
       allocation recycles it, which is why the in-use count, not the reachable count, is the
       measure that is exact.
   PROVED (programs): by Props/C09.v C09_program_heap_safe the statements hold for every run of a
   linearity-checked program on the heap-instrumented linear machine (C10_program_..., second part of this file).
   That the emitted code performs exactly the machine's operations is the simulation of C06 / C07 / C08 (and
   heaplock-x86, see C09).  The executable check on the real code (frontier <= peak + 2, looser than the theorem's
   1; equal frontier after 8 and 32 iterations of the allocation-loop families) is run besides. *)
From Coq Require Import List ZArith Permutation.
From SCC Require Import Model.Heap Proof.HeapMore Proof.HeapTrace.
Import ListNotations.
Open Scope Z_scope.

Theorem C10_frontier_moves_only_when_nothing_reusable :
  forall s R hl fl cl,
    Inv s R hl fl cl ->
    frontier (snd (acquire s)) = frontier s \/
    (frontier (snd (acquire s)) = frontier s + BLOCK /\ hl = [heap s] /\ fl = []).
Proof. exact acquire_frontier. Qed.
Print Assumptions C10_frontier_moves_only_when_nothing_reusable.

Theorem C10_footprint_bound :
  forall base ops pk,
    0 < base -> pre_trace (init base) [] ops -> peak_bound base ops pk ->
    (frontier (fst (grun ops (init base, []))) - base) / BLOCK <= Z.of_nat pk + 1.
Proof. exact footprint_bound. Qed.
Print Assumptions C10_footprint_bound.

Theorem C10_footprint_exact :
  forall base ops pk,
    0 < base -> pre_trace (init base) [] ops -> peak_bound base ops pk -> peak_attained base ops pk ->
    frontier (fst (grun ops (init base, []))) = base + (Z.of_nat pk + 1) * BLOCK.
Proof. exact footprint_exact. Qed.
Print Assumptions C10_footprint_exact.

Theorem C10_in_use_unique :
  forall base sr n1 n2, in_use base sr n1 -> in_use base sr n2 -> n1 = n2.
Proof. exact in_use_unique. Qed.
Print Assumptions C10_in_use_unique.

Theorem C10_loop_space_constant :
  forall base ops1 ops2 pk,
    0 < base -> pre_trace (init base) [] ops1 -> pre_trace (init base) [] ops2 ->
    peak_bound base ops1 pk -> peak_attained base ops1 pk ->
    peak_bound base ops2 pk -> peak_attained base ops2 pk ->
    frontier (fst (grun ops1 (init base, []))) = frontier (fst (grun ops2 (init base, []))).
Proof. exact loop_space_constant. Qed.
Print Assumptions C10_loop_space_constant.

Theorem C10_loop_space_constant_iter :
  forall base setup body n1 n2 pk,
    0 < base ->
    pre_trace (init base) [] (setup ++ iterate n1 body) -> pre_trace (init base) [] (setup ++ iterate n2 body) ->
    peak_bound base (setup ++ iterate n1 body) pk -> peak_attained base (setup ++ iterate n1 body) pk ->
    peak_bound base (setup ++ iterate n2 body) pk -> peak_attained base (setup ++ iterate n2 body) pk ->
    frontier (fst (grun (setup ++ iterate n1 body) (init base, []))) =
    frontier (fst (grun (setup ++ iterate n2 body) (init base, []))).
Proof. exact loop_space_constant_iter. Qed.
Print Assumptions C10_loop_space_constant_iter.

(* the form "an iteration that stays within a peak already reached does not move the frontier" *)
Theorem C10_frontier_stable_after_peak :
  forall base (pk : nat) ops s R hl fl cl,
    InvA base s R hl fl cl -> pre_trace s R ops ->
    (forall sr n, In sr (states ops (s, R)) -> in_use base sr n -> (n <= pk)%nat) ->
    frontier s - base = (Z.of_nat pk + 1) * BLOCK ->
    frontier (fst (grun ops (s, R))) = frontier s.
Proof. exact frontier_stable_after_peak. Qed.
Print Assumptions C10_frontier_stable_after_peak.

(* ====================================================================================== *)
(* C10 on PROGRAMS.  By Props/C09.v `C09_program_heap_safe` the operation trace of every
   run of a linearity-checked program on the instrumented machine (Sem/AxHeap.v) satisfies
   `pre_trace`, so the footprint theorems hold for programs. *)
From SCC Require Import Lang.AxSyn Model.LinCheck Sem.AxHeap Proof.AxHeapTyping Proof.AxHeapSafe Proof.AxHeapProps
  Proof.AxHeapExample Proof.AxHeapExampleFacts.

Theorem C10_program_footprint_bound : forall base p args,
  lin_check_prog p = true -> entry_ext p = true -> 0 < base ->
  forall tr c pk, hreach base p args tr c -> peak_bound base tr pk ->
  (frontier (hc_heap c) - base) / BLOCK <= Z.of_nat pk + 1.
Proof. exact prog_footprint_bound. Qed.
Print Assumptions C10_program_footprint_bound.

Theorem C10_program_footprint_exact : forall base p args,
  lin_check_prog p = true -> entry_ext p = true -> 0 < base ->
  forall tr c pk, hreach base p args tr c -> peak_bound base tr pk -> peak_attained base tr pk ->
  frontier (hc_heap c) = base + (Z.of_nat pk + 1) * BLOCK.
Proof. exact prog_footprint_exact. Qed.
Print Assumptions C10_program_footprint_exact.

(* loops run in constant space: two runs of a program - any arguments, any numbers of iterations -
   in which the same peak of blocks in use is attained end with the same frontier *)
Theorem C10_program_loop_space_constant : forall base p args1 args2 tr1 c1 tr2 c2 pk,
  lin_check_prog p = true -> entry_ext p = true -> 0 < base ->
  hreach base p args1 tr1 c1 -> hreach base p args2 tr2 c2 ->
  peak_bound base tr1 pk -> peak_attained base tr1 pk -> peak_bound base tr2 pk -> peak_attained base tr2 pk ->
  frontier (hc_heap c1) = frontier (hc_heap c2).
Proof. exact prog_loop_space_constant. Qed.
Print Assumptions C10_program_loop_space_constant.

(* the steady state of a loop, stated with the abstract machine: from a reachable configuration c
   whose frontier stands at pk + 1 blocks, ANY continuation c -> c' (any number of further
   iterations; in particular iterations that return the heap to a state with the same number of
   blocks in use) during which at most pk blocks are in use leaves the frontier where it is *)
Theorem C10_program_frontier_stable : forall base p args tr c tr' c' (pk : nat),
  lin_check_prog p = true -> entry_ext p = true -> 0 < base ->
  hreach base p args tr c -> hsteps p c tr' c' ->
  (forall sr n, In sr (states tr' (hc_heap c, roots (hc_env c))) -> in_use base sr n -> (n <= pk)%nat) ->
  frontier (hc_heap c) - base = (Z.of_nat pk + 1) * BLOCK ->
  frontier (hc_heap c') = frontier (hc_heap c).
Proof. exact prog_frontier_stable. Qed.
Print Assumptions C10_program_frontier_stable.

(* and from any reachable configuration the footprint stays below max(where it stood, peak + 1) *)
Theorem C10_program_footprint_from : forall base p args tr c tr' c' (pk : nat),
  lin_check_prog p = true -> entry_ext p = true -> 0 < base ->
  hreach base p args tr c -> hsteps p c tr' c' ->
  (forall sr n, In sr (states tr' (hc_heap c, roots (hc_env c))) -> in_use base sr n -> (n <= pk)%nat) ->
  frontier (hc_heap c) - base <= (Z.of_nat pk + 1) * BLOCK ->
  frontier (hc_heap c') - base <= (Z.of_nat pk + 1) * BLOCK.
Proof. exact prog_footprint_from. Qed.
Print Assumptions C10_program_footprint_from.

(* the peak hypotheses can be computed: `peak_n` walks the reuse list in every state of the trace
   (blocks in use = blocks below the frontier - length of the reuse list) *)
Theorem C10_peak_computable : forall base fuel ops pk,
  0 < base -> pre_trace (init base) [] ops -> peak_n base fuel ops (init base) = Some pk ->
  peak_bound base ops pk /\ peak_attained base ops pk.
Proof. exact peak_n_peak. Qed.
Print Assumptions C10_peak_computable.

(* non-vacuity: the loop program of Proof/AxHeapExample.v with 3 and with 30 iterations: peak 5 blocks
   in use in both runs, and - by the theorems - the same frontier, 6 blocks above the base *)
Example C10_example_peaks :
  (peak_bound 4096 (hx_trace 3) 5 /\ peak_attained 4096 (hx_trace 3) 5) /\
  (peak_bound 4096 (hx_trace 30) 5 /\ peak_attained 4096 (hx_trace 30) 5).
Proof. exact (conj hx_peak_3 hx_peak_30). Qed.
Print Assumptions C10_example_peaks.

Example C10_example_loop_constant_space :
  exists c1 c2, hreach 4096 hx_lin [3; 100] (hx_trace 3) c1 /\ hreach 4096 hx_lin [30; 100] (hx_trace 30) c2 /\
    frontier (hc_heap c1) = frontier (hc_heap c2) /\ frontier (hc_heap c1) = 4096 + (5 + 1) * BLOCK.
Proof. exact hx_loop_space. Qed.
Print Assumptions C10_example_loop_constant_space.
