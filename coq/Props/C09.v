(* C09: heap consistency - exact reference counts, no leak, no reuse of live blocks.
      Only statements; proofs in Model/Heap.v, Proof/HeapMore.v, HeapTrace.v (abstract allocator, the same for the
   three back ends), Proof/AxHeap*.v (programs), Proof/X86Mem*.v, A64Mem*.v, RVMem*Chain.v (emitted code).

   The invariant `Inv s R hl fl cl` relates the allocator state s, the multiset R of pointers held by
   live variables, and the ghost partition of the blocks below the frontier into hl (reuse list),
   fl (deferred list) and cl (counted blocks):
     - hl and fl are the header chains from the heap / free register, duplicate free, disjoint;
     - (RC) for every counted block b: header b + 1 = number of references to b from R and from the
       pointer slots of counted and deferred blocks (exact counts: nothing leaked, nothing lost);
     - (NR) no reference anywhere to a block that is not counted (no use after release, no double
       release);
     - everything at or above the frontier is zero.
   The strengthened invariant `InvA base s R hl fl cl` (Proof/HeapMore.v) adds:
     - (SZ/AL/TOT) hl ++ fl ++ cl are exactly the block addresses base + k * 64 below the frontier;
     - (POS) the header of a counted block is not negative, so it has at least one referrer;
     - (AC) the pointer slots of counted and deferred blocks are acyclic (a rank function).

   PROVED
     * Inv holds initially and is preserved by share, erase (both branches), a list of erasures,
       acquire (reuse list / deferred list with lazy erasure of the children / bump), single-block
       allocation, destructive load (release)                                  [Model/Heap.v]
     * Inv and InvA are preserved by the non-destructive load (decrement, share every non-null
       child)                                                                  [load_share_*]
     * InvA holds initially and is preserved by every operation above and by objects chained over
       several blocks: alloc_object mirrors store_fields (last block first, at most 3 fields in the
       block written first, 2 fields + link in slot 2 in the others), load_object_release /
       load_object_share mirror load_fields in the two LoadModes (the links are neither shared nor
       released separately)                                                    [C09_*_object_*]
     * the operation-trace theorem: every state reached from a state satisfying InvA by a
       sequence of operations whose preconditions hold satisfies InvA (hence Inv), with a
       non-trivial example trace on which the preconditions hold               [C09_trace*, C09_example]
     * the derived classification: every block below the frontier is in exactly one of hl / fl / cl;
       a counted block has a referrer, and following referrers upward ends at a live variable
       (reachable) or at a deferred block (waiting beneath it)                 [C09_classification, C09_no_leak]
     * a block reachable from the live variables is on no free list; the block that erase /
       release put on a list was on none, and the lists stay duplicate free    [C09_no_use_after_release, C09_no_double_release]
     * refinement of share_block_n, erase_block, release_block and acquire_block (all three cases,
       including the lazy erasure of the recycled block's children) to the emitted x86-64 code on
       the ISA semantics, operand in a register or a spill slot, null included, all branches; the
       image is any image containing the code whose labels resolve to their positions (as mk_image
       gives for duplicate-free labels)
                 [C09_x86_share_block, C09_x86_erase_block, C09_x86_release_block, C09_x86_acquire_block_reg/_spill, C09_x86_image]

     * programs: the linear machine instrumented with the abstract heap (Sem/AxHeap.v) observes what
       exec_linear observes; for every linearity-checked program every reachable configuration satisfies InvA with
       roots = the pointers of the environment = the non-ext variables of the statement's typing context, every value
       is represented at its pointer, chains are owned (so the preconditions obj_ok / links_ok of the load theorems hold by invariant),
       and every emitted operation meets its precondition: the operation trace of every run satisfies pre_trace, so
       all trace theorems are theorems about programs       [C09_program_heap_safe, C09_program_step_safe, C09_program_*]
     * x86-64: the emitted code of store (let / create) and load (switch / invoke), any number of fields,
       registers and spill slots, both load modes, refines alloc_object / load_object; the reference-count code of a
       substitution refines the machine's operation list   [C09_x86_store*, C09_x86_load*, C09_x86_substitute_memory]
     * AArch64: share / erase / release / acquire, store and load of any number of fields (block pointers in registers
       or spill slots), the reference-count code of a substitution                       [C09_a64_*]
     * RISC-V: store and load of any number of fields [C09_rv_store, C09_rv_load]; share / erase / release / acquire
       stand in Props/C08.v (C08_rv_share_block_heap ... C08_rv_acquire_block_heap)

   ELSEWHERE: that the emitted code of a whole statement performs the operation sequence the instrumented machine
   lists is the forward simulation of C06 / C07 / C08 (C06_heap_bridge_..., C06_sim_exec_heap, C07_sim_exec_heap,
   C08_sim_exec_heap_all); also checked on every run by heaplock-x86 (the real x86-64 code in lockstep with the
   instrumented machine, compared at every statement boundary).
   LEFT OUT: executions that do not fit the heap region - every refinement theorem has `is_blk` operands or a
   frontier bound as hypothesis, and without it the statement is false (C09_x86_allocation_stays_in_region_refuted,
   known finding heap-exhaustion-unchecked); "touches no memory outside heap, spill area and pushes" as a
   statement of its own (the theorems give frames, `nonblk_same` / `stack_frame`; out-of-region accesses are
   faults of the ISA model). *)
From Coq Require Import List ZArith NArith Permutation FMapPositive.
From SCC Require Import Model.Heap Proof.HeapMore Proof.HeapTrace.
From SCC Require Model.X86 Sem.X86Sem Proof.X86State Proof.X86Mem.
Import ListNotations.
Open Scope Z_scope.

Theorem C09_initial_state : forall base, 0 < base -> Inv (init base) [] [base] [] [].
Proof. exact init_inv. Qed.
Print Assumptions C09_initial_state.

Theorem C09_share_preserves :
  forall s R hl fl cl p n,
    Inv s R hl fl cl -> 0 <= n -> (p = 0 \/ In p R) ->
    Inv (share p n s) (repeat p (Z.to_nat n) ++ R) hl fl cl \/ (p = 0 /\ share p n s = s).
Proof. exact share_inv. Qed.
Print Assumptions C09_share_preserves.

Theorem C09_erase_preserves :
  forall s R R0 hl fl cl p,
    Inv s R hl fl cl -> p <> 0 -> Permutation R (p :: R0) ->
    exists fl' cl', Inv (erase p s) R0 hl fl' cl'.
Proof. exact erase_inv. Qed.
Print Assumptions C09_erase_preserves.

Theorem C09_erase_list_preserves :
  forall l s R hl fl cl,
    Inv s (nz l ++ R) hl fl cl ->
    exists fl' cl', Inv (fold_left (fun s c => erase c s) l s) R hl fl' cl'.
Proof. exact erase_list_inv. Qed.
Print Assumptions C09_erase_list_preserves.

Theorem C09_acquire_preserves :
  forall s R R0 hl fl cl,
    Inv s R hl fl cl ->
    Permutation R (nz (ps (m s (heap s))) ++ R0) ->
    fst (acquire s) = heap s /\
    exists hl' fl' cl', Inv (snd (acquire s)) (heap s :: R0) hl' fl' cl'.
Proof. exact acquire_inv. Qed.
Print Assumptions C09_acquire_preserves.

Theorem C09_alloc_preserves :
  forall s R R0 hl fl cl p,
    Inv s R hl fl cl -> Permutation R (nz p ++ R0) ->
    fst (alloc p s) = heap s /\ exists hl' fl' cl', Inv (snd (alloc p s)) (heap s :: R0) hl' fl' cl'.
Proof. exact alloc_inv. Qed.
Print Assumptions C09_alloc_preserves.

Theorem C09_load_release_preserves :
  forall s R R0 hl fl cl p,
    Inv s R hl fl cl -> p <> 0 -> Permutation R (p :: R0) -> hdr (m s p) = 0 ->
    exists cl', Inv (release p s) (nz (ps (m s p)) ++ R0) (p :: hl) fl cl'.
Proof. exact load_release_inv. Qed.
Print Assumptions C09_load_release_preserves.

(* a pointer held by a live variable always names a counted block: never a free or deferred one *)
Theorem C09_roots_are_counted :
  forall s R hl fl cl p, Inv s R hl fl cl -> p <> 0 -> In p R -> In p cl.
Proof. exact root_counted. Qed.
Print Assumptions C09_roots_are_counted.

(* ---------- non-destructive load ---------- *)
(* `ADDIM [p], -1`, then every field loaded and its non-null pointer shared once: R loses p and
   gains the children; the ghost lists are unchanged *)
Theorem C09_load_share_preserves :
  forall s R R0 hl fl cl p,
    Inv s R hl fl cl -> p <> 0 -> Permutation R (p :: R0) -> hdr (m s p) <> 0 ->
    Inv (load_share p s) (nz (ps (m s p)) ++ R0) hl fl cl.
Proof. exact load_share_inv. Qed.
Print Assumptions C09_load_share_preserves.

(* ---------- the strengthened invariant and objects over several blocks ---------- *)
Theorem C09_initial_state_A : forall base, 0 < base -> InvA base (init base) [] [base] [] [].
Proof. exact init_invA. Qed.
Print Assumptions C09_initial_state_A.

Theorem C09_InvA_implies_Inv : forall base s R hl fl cl, InvA base s R hl fl cl -> Inv s R hl fl cl.
Proof. exact invA_inv. Qed.
Print Assumptions C09_InvA_implies_Inv.

(* store_fields: the pointers of the fields move from R into the object; the new root is its head *)
Theorem C09_alloc_object_preserves :
  forall base s R R0 hl fl cl fields,
    InvA base s R hl fl cl -> Permutation R (nz fields ++ R0) -> fields <> [] ->
    exists hl' fl' cl',
      InvA base (snd (alloc_object fields s)) (fst (alloc_object fields s) :: R0) hl' fl' cl' /\
      fst (alloc_object fields s) <> 0 /\
      fr_rel s hl (snd (alloc_object fields s)) hl' /\
      (length cl + length fl <= length cl' + length fl')%nat.
Proof. exact alloc_object_invA. Qed.
Print Assumptions C09_alloc_object_preserves.

(* load_fields, LoadMode::Release: k continuation blocks; precondition obj_ok = every block of the
   object is non-null with header 0 *)
Theorem C09_load_object_release_preserves :
  forall base k p s R R0 hl fl cl,
    InvA base s R hl fl cl -> Permutation R (p :: R0) -> obj_ok k (m s) p ->
    exists hl' cl',
      InvA base (load_object_release k p s) (nz (obj_fields k (m s) p) ++ R0) hl' fl cl' /\
      frontier (load_object_release k p s) = frontier s.
Proof. exact load_object_release_invA. Qed.
Print Assumptions C09_load_object_release_preserves.

(* load_fields, LoadMode::Share: precondition links_ok = the links are non-null *)
Theorem C09_load_object_share_preserves :
  forall base k p s R R0 hl fl cl,
    InvA base s R hl fl cl -> p <> 0 -> Permutation R (p :: R0) -> hdr (m s p) <> 0 -> links_ok k (m s) p ->
    InvA base (load_object_share k p s) (nz (obj_fields k (m s) p) ++ R0) hl fl cl.
Proof. exact load_object_share_invA. Qed.
Print Assumptions C09_load_object_share_preserves.

(* ---------- operation traces ---------- *)
Theorem C09_step_preserves :
  forall base s R hl fl cl o,
    InvA base s R hl fl cl -> pre s R o ->
    exists hl' fl' cl', InvA base (step s o) (ghost s R o) hl' fl' cl' /\ fr_step s (step s o) hl'.
Proof. exact heap_inv_step. Qed.
Print Assumptions C09_step_preserves.

Theorem C09_trace :
  forall ops s R hl fl cl base,
    InvA base s R hl fl cl -> pre_trace s R ops ->
    exists hl' fl' cl', Inv (fst (grun ops (s, R))) (snd (grun ops (s, R))) hl' fl' cl'.
Proof. exact heap_inv_trace. Qed.
Print Assumptions C09_trace.

(* every allocator state reachable from the initial state satisfies the (strengthened) invariant *)
Theorem C09_trace_from_init :
  forall base ops, 0 < base -> pre_trace (init base) [] ops ->
    exists hl fl cl, InvA base (fst (grun ops (init base, []))) (snd (grun ops (init base, []))) hl fl cl.
Proof. exact heap_inv_reachable. Qed.
Print Assumptions C09_trace_from_init.

(* the premises are satisfiable on a trace that takes every branch of every operation *)
Theorem C09_example : pre_trace (init 4096) [] example_ops.
Proof. exact example_pre. Qed.
Print Assumptions C09_example.

(* ---------- the derived classification ---------- *)
Theorem C09_classification :
  forall base s R hl fl cl a,
    InvA base s R hl fl cl -> blk base a -> a < frontier s ->
    (In a hl /\ ~ In a fl /\ ~ In a cl) \/
    (In a fl /\ ~ In a hl /\ ~ In a cl) \/
    (In a cl /\ ~ In a hl /\ ~ In a fl /\
     (reach (m s) R a \/ reach (m s) (deferred_slots s fl) a)).
Proof. exact classify_total_exclusive. Qed.
Print Assumptions C09_classification.

Theorem C09_no_leak :
  forall base s R hl fl cl b,
    InvA base s R hl fl cl -> In b cl ->
    In b R \/ exists x, In x (cl ++ fl) /\ In b (ps (m s x)).
Proof. exact no_leak. Qed.
Print Assumptions C09_no_leak.

Theorem C09_no_use_after_release :
  forall s R hl fl cl b,
    Inv s R hl fl cl -> reach (m s) R b -> In b cl /\ ~ In b hl /\ ~ In b fl.
Proof. exact no_use_after_release. Qed.
Print Assumptions C09_no_use_after_release.

Theorem C09_no_double_release :
  forall s R hl fl cl p,
    Inv s R hl fl cl -> p <> 0 -> In p R ->
    ~ In p (hl ++ fl) /\
    (hdr (m s p) = 0 ->
       (exists cl', Inv (erase p s) (rem1 p R) hl (p :: fl) cl' /\ NoDup (hl ++ (p :: fl) ++ cl')) /\
       (exists cl', Inv (release p s) (nz (ps (m s p)) ++ rem1 p R) (p :: hl) fl cl' /\ NoDup ((p :: hl) ++ fl ++ cl'))).
Proof. exact no_double_release. Qed.
Print Assumptions C09_no_double_release.

(* ---------- refinement to the x86-64 code (ISA semantics of Sem/X86Sem.v) ---------- *)
Import Model.X86 Sem.X86Sem Proof.X86State Proof.X86Mem.

Theorem C09_x86_share_block :
  forall im pos t n lc s sp p F,
    let cs := fst (x_share_block_n t n lc) in
    code_at im pos cs -> labels_at im pos cs ->
    frame_ok s sp -> loc_ok t -> lget s sp t = Some p ->
    (p = 0 \/ is_blk p) -> fits32 (Z.of_N n) = true ->
    (p <> 0 -> AxSem.wrap (hword s p + Z.of_N n) = hword s p + Z.of_N n) ->
    exists s', steps im pos s (pnth pos (List.length cs)) s' /\
       st_eqB (abs_heap F s') (Heap.share p (Z.of_N n) (abs_heap F s)) /\
       same_but_temp s s' /\ frame_ok s' sp.
Proof. exact x86_share_block_ok. Qed.
Print Assumptions C09_x86_share_block.

Theorem C09_x86_erase_block :
  forall im pos t lc s sp p f F,
    let cs := fst (x_erase_block t lc) in
    code_at im pos cs -> labels_at im pos cs ->
    frame_ok s sp -> loc_ok t -> lget s sp t = Some p -> rget s FREE = Some f ->
    (p = 0 \/ is_blk p) ->
    (p <> 0 -> hword s p <> 0 -> AxSem.wrap (hword s p + -1) = hword s p - 1) ->
    exists s', steps im pos s (pnth pos (List.length cs)) s' /\
       st_eqB (abs_heap F s') (Heap.erase p (abs_heap F s)) /\
       same_but_temp_free s s' /\
       (frame_ok s' sp /\ rget s' FREE = Some (Heap.free (Heap.erase p (abs_heap F s)))).
Proof. exact x86_erase_block_ok. Qed.
Print Assumptions C09_x86_erase_block.

Theorem C09_x86_release_block :
  forall im pos r s p h F,
    code_at im pos (release_block r) ->
    rget s r = Some p -> rget s HEAP = Some h -> is_blk p ->
    exists s', steps im pos s (pnth pos 2) s' /\
       st_eqB (abs_heap F s') (Heap.release p (abs_heap F s)) /\
       (forall r', r' <> HEAP -> rget s' r' = rget s r') /\ stack s' = stack s /\ out s' = out s.
Proof. exact x86_release_block_ok. Qed.
Print Assumptions C09_x86_release_block.

(* acquire_block: (1) next block of the reuse list, (2) recycle the first deferred block and erase
   its three children lazily, (3) bump.  The hypotheses about the deferred block and its children
   are needed only on the paths that touch them; `bounded 3` keeps the three decrements away from
   64-bit wrap-around.  The new block lands in a register ... *)
Theorem C09_x86_acquire_block_reg :
  forall im pos r lc s sp rv h2 F,
    let cs := fst (acquire_block (XR r) lc) in
    code_at im pos cs -> labels_at im pos cs ->
    frame_ok s sp -> r <> 0%N -> r <> HEAP -> r <> FREE -> r <> TEMP ->
    rget s HEAP = Some rv -> is_blk rv -> rget s FREE = Some h2 ->
    (hword s rv = 0 -> is_blk h2) ->
    (hword s rv = 0 -> hword s h2 <> 0 ->
       (forall off, off = 16 \/ off = 32 \/ off = 48 -> hword s (h2 + off) = 0 \/ is_blk (hword s (h2 + off))) /\
       bounded 3 s (hword s h2)) ->
    exists s', steps im pos s (pnth pos (List.length cs)) s' /\
      st_eqB (abs_heap (Heap.frontier (snd (Heap.acquire (abs_heap F s)))) s') (snd (Heap.acquire (abs_heap F s))) /\
      rget s' r = Some rv /\ fst (Heap.acquire (abs_heap F s)) = rv /\
      (forall r', r' <> r -> r' <> TEMP -> r' <> HEAP -> r' <> FREE -> rget s' r' = rget s r') /\
      stack s' = stack s /\ out s' = out s /\ frame_ok s' sp.
Proof. exact x86_acquire_block_reg_ok. Qed.
Print Assumptions C09_x86_acquire_block_reg.

(* ... or in a spill slot *)
Theorem C09_x86_acquire_block_spill :
  forall im pos q lc s sp rv h2 F,
    let cs := fst (acquire_block (XS q) lc) in
    code_at im pos cs -> labels_at im pos cs ->
    frame_ok s sp -> slot_ok q ->
    rget s HEAP = Some rv -> is_blk rv -> rget s FREE = Some h2 ->
    (hword s rv = 0 -> is_blk h2) ->
    (hword s rv = 0 -> hword s h2 <> 0 ->
       (forall off, off = 16 \/ off = 32 \/ off = 48 -> hword s (h2 + off) = 0 \/ is_blk (hword s (h2 + off))) /\
       bounded 3 s (hword s h2)) ->
    exists s', steps im pos s (pnth pos (List.length cs)) s' /\
      st_eqB (abs_heap (Heap.frontier (snd (Heap.acquire (abs_heap F s)))) s') (snd (Heap.acquire (abs_heap F s))) /\
      sget s' sp q = Some rv /\ fst (Heap.acquire (abs_heap F s)) = rv /\
      (forall r', r' <> TEMP -> r' <> HEAP -> r' <> FREE -> rget s' r' = rget s r') /\
      (forall q', slot_ok q' -> q' <> q -> sget s' sp q' = sget s sp q') /\ out s' = out s /\ frame_ok s' sp.
Proof. exact x86_acquire_block_spill_ok. Qed.
Print Assumptions C09_x86_acquire_block_spill.

(* the hypotheses on the image hold for mk_image of a program with duplicate-free labels, and
   `steps` is what the executable runner does *)
Theorem C09_x86_image :
  forall cs, NoDup (label_names cs) -> code_at (mk_image cs) 1%positive cs /\ labels_at (mk_image cs) 1%positive cs.
Proof. exact mk_image_code_labels. Qed.
Print Assumptions C09_x86_image.

Theorem C09_x86_steps_run :
  forall im pc s pc' s', steps im pc s pc' s' ->
    exists n, forall fuel, run_chunk (n + fuel) im pc s = run_chunk fuel im pc' s'.
Proof. exact steps_run_chunk. Qed.
Print Assumptions C09_x86_steps_run.

(* ====================================================================================== *)
(* PROGRAMS generate well-formed allocator traces.
   Sem/AxHeap.v instruments the linear machine `exec_linear` with the abstract allocator: every
   environment entry carries the word of its first temporary (pointer, 0 for integers and for
   field-less objects), every step emits the allocator operations the code of `code_statement`
   performs for that statement (substitute: erase / share_n per binding in the key order of
   `Backend.transpose`; let / create: OAllocObj of the stored pointers; switch / invoke: OLoadObj of
   the consumed object), and the heap component evolves by Heap.step only. *)
From SCC Require Import Lang.AxSyn Model.Linearize Model.LinCheck Sem.AxHeap.
From SCC Require Import Proof.LinTyping Proof.LinearizeProof Proof.AxHeapErase Proof.AxHeapTyping Proof.HeapRep Proof.AxHeapSafe
  Proof.AxHeapProps Proof.AxHeapExample Proof.AxHeapExampleFacts.

(* the instrumentation does not change what is observed: erasing pointers and heap gives exec_linear *)
Theorem C09_instrumented_machine_erases : forall p fuel c out tr,
  fst (fst (hexec fuel p c out tr)) = AxSem.exec_linear fuel p (erase_env (hc_env c)) (hc_stmt c) out.
Proof. exact hexec_erase. Qed.
Print Assumptions C09_instrumented_machine_erases.

Theorem C09_instrumented_run_observes_run_linear : forall fuel base p args,
  match hrun_prog fuel base p args with
  | Some r => fst (fst r) = AxSem.run_linear fuel p args
  | None => exists w, AxSem.run_linear fuel p args = ([], AxSem.OStuck w)
  end.
Proof. exact hrun_prog_erase. Qed.
Print Assumptions C09_instrumented_run_observes_run_linear.

(* what the runner returns is a reachable configuration with the trace it returns *)
Theorem C09_runner_reaches : forall fuel base p args o c tr,
  hrun_prog fuel base p args = Some (o, c, tr) -> hreach base p args tr c.
Proof. exact hrun_prog_reach. Qed.
Print Assumptions C09_runner_reaches.

(* type preservation of the machine: the environment stays the typing context of the statement *)
Theorem C09_machine_type_preservation : forall p he hs s ops he' s' pr,
  lin_check_prog p = true -> cfg_wt p he s -> hstep p he hs s = HStep ops he' s' pr -> cfg_wt p he' s'.
Proof. exact hstep_wt. Qed.
Print Assumptions C09_machine_type_preservation.

(* ONE STEP: in a configuration satisfying the invariant (InvA with roots = pointers of the
   environment, values represented, chains owned) every operation of the step meets its precondition
   in the state in which it is executed, and the invariant holds afterwards *)
Theorem C09_program_step_safe : forall base p he hs s ops he' s' pr,
  cfg_wt p he s -> HInv base he hs -> hstep p he hs s = HStep ops he' s' pr ->
  pre_trace hs (roots he) ops /\
  Permutation (snd (grun ops (hs, roots he))) (roots he') /\
  HInv base he' (hrun ops hs).
Proof. exact hstep_safe. Qed.
Print Assumptions C09_program_step_safe.

(* THE MAIN THEOREM.  For a linearity-checked program whose entry takes integers, in every
   configuration c reached from the initial one (allocator state `init base`) with operation trace tr:
   tr satisfies `pre_trace` (so every theorem above about traces applies to tr), the heap of c is the
   result of tr, the ghost roots are the non-null pointers of the environment, the strengthened
   invariant holds with exactly these roots, every value is represented at its pointer, and the
   environment is typed by the context of the statement. *)
Theorem C09_program_heap_safe : forall base p args tr c,
  lin_check_prog p = true -> entry_ext p = true -> 0 < base ->
  hreach base p args tr c ->
  pre_trace (init base) [] tr /\
  hc_heap c = fst (grun tr (init base, [])) /\
  Permutation (snd (grun tr (init base, []))) (roots (hc_env c)) /\
  (exists hl fl cl, InvA base (hc_heap c) (roots (hc_env c)) hl fl cl) /\
  (exists lk, KI lk (hc_heap c) (roots (hc_env c)) /\ env_rep lk (hc_heap c) (hc_env c)) /\
  cfg_wt p (hc_env c) (hc_stmt c).
Proof. exact program_heap_safe. Qed.
Print Assumptions C09_program_heap_safe.

(* roots = context: the bindings reconstructed from the environment (`ctx_of`: name, kind and type of
   each value) ARE the typing context cx of the statement - the context `code_statement` threads -
   and the roots are the pointers of its non-ext variables (an ext variable has pointer 0) *)
Theorem C09_program_roots_are_context : forall base p args,
  lin_check_prog p = true -> entry_ext p = true -> 0 < base ->
  forall tr c, hreach base p args tr c ->
  (exists hl fl cl, InvA base (hc_heap c) (roots (hc_env c)) hl fl cl) /\
  (exists cx, lin_wt (sigs_of p) cx (hc_stmt c) /\ ctx_of (hc_env c) = cx /\
              forall en, In en (hc_env c) -> chi_of (h_val en) = AxSyn.Ext -> h_ptr en = 0).
Proof. exact prog_inv. Qed.
Print Assumptions C09_program_roots_are_context.

(* the same for everything the compiler's linearization pass produces from a checked named program *)
Theorem C09_compiled_program_heap_safe : forall base p args tr c,
  prog_ok p = true -> entry_ext (linearize p) = true -> 0 < base ->
  hreach base (linearize p) args tr c ->
  pre_trace (init base) [] tr /\
  (exists hl fl cl, InvA base (hc_heap c) (roots (hc_env c)) hl fl cl).
Proof. exact compiled_program_heap_safe. Qed.
Print Assumptions C09_compiled_program_heap_safe.

Theorem C09_program_no_use_after_release : forall base p args,
  lin_check_prog p = true -> entry_ext p = true -> 0 < base ->
  forall tr c b, hreach base p args tr c -> reach (m (hc_heap c)) (roots (hc_env c)) b ->
  exists hl fl cl, InvA base (hc_heap c) (roots (hc_env c)) hl fl cl /\ In b cl /\ ~ In b hl /\ ~ In b fl.
Proof. exact prog_no_use_after_release. Qed.
Print Assumptions C09_program_no_use_after_release.

Theorem C09_program_no_double_release : forall base p args,
  lin_check_prog p = true -> entry_ext p = true -> 0 < base ->
  forall tr c en, hreach base p args tr c -> In en (hc_env c) -> h_ptr en <> 0 ->
  exists hl fl cl, InvA base (hc_heap c) (roots (hc_env c)) hl fl cl /\ ~ In (h_ptr en) (hl ++ fl) /\ In (h_ptr en) cl.
Proof. exact prog_no_double_release. Qed.
Print Assumptions C09_program_no_double_release.

Theorem C09_program_classification : forall base p args,
  lin_check_prog p = true -> entry_ext p = true -> 0 < base ->
  forall tr c a, hreach base p args tr c -> blk base a -> a < frontier (hc_heap c) ->
  exists hl fl cl, InvA base (hc_heap c) (roots (hc_env c)) hl fl cl /\
   ((In a hl /\ ~ In a fl /\ ~ In a cl) \/ (In a fl /\ ~ In a hl /\ ~ In a cl) \/
    (In a cl /\ ~ In a hl /\ ~ In a fl /\
     (reach (m (hc_heap c)) (roots (hc_env c)) a \/ reach (m (hc_heap c)) (deferred_slots (hc_heap c) fl) a))).
Proof. exact prog_classification. Qed.
Print Assumptions C09_program_classification.

(* no leak at exit: when no variable holds a pointer every block is free, deferred, or waits beneath
   a deferred block *)
Theorem C09_program_exit_no_leak : forall base p args,
  lin_check_prog p = true -> entry_ext p = true -> 0 < base ->
  forall tr c a, hreach base p args tr c -> roots (hc_env c) = [] -> blk base a -> a < frontier (hc_heap c) ->
  exists hl fl cl, InvA base (hc_heap c) [] hl fl cl /\
    (In a hl \/ In a fl \/ (In a cl /\ reach (m (hc_heap c)) (deferred_slots (hc_heap c) fl) a)).
Proof. exact prog_exit_no_leak. Qed.
Print Assumptions C09_program_exit_no_leak.

(* the heap-side ingredients: what `alloc_object` builds is read back by `obj_fields`, chains are
   owned, everything reachable from the old roots keeps its slots; the load of a represented object
   meets its precondition and keeps the chain invariant *)
Theorem C09_alloc_object_represents : forall base lk s R R0 hl fl cl fields,
  InvA base s R hl fl cl -> KI lk s R -> Permutation R (nz fields ++ R0) -> fields <> [] ->
  exists lk' j' hl' fl' cl',
    let r := alloc_object fields s in
    InvA base (snd r) (fst r :: R0) hl' fl' cl' /\ KI lk' (snd r) (fst r :: R0) /\ fst r <> 0 /\
    lk' (fst r) = nlinks (length fields) /\ links_ok (lk' (fst r)) (m (snd r)) (fst r) /\
    obj_fields (lk' (fst r)) (m (snd r)) (fst r) = repeat 0 j' ++ fields /\
    (forall b, reach (m s) R b ->
       ps (m (snd r) b) = ps (m s b) /\ lk' b = lk b /\ reach (m (snd r)) (fst r :: R0) b).
Proof. exact HeapRepAlloc.alloc_object_rep. Qed.
Print Assumptions C09_alloc_object_represents.

Theorem C09_load_object_precondition_from_chain_invariant : forall base lk s R R0 hl fl cl p k j pl,
  InvA base s R hl fl cl -> KI lk s R -> Permutation R (p :: R0) -> p <> 0 ->
  lk p = k -> obj_fields k (m s) p = repeat 0 j ++ pl ->
  pre s R (OLoadObj k p) /\
  (exists hl' fl' cl', InvA base (load_object k p s) (nz pl ++ R0) hl' fl' cl') /\
  KI lk (load_object k p s) (nz pl ++ R0).
Proof. exact HeapRepLoad.load_object_KI. Qed.
Print Assumptions C09_load_object_precondition_from_chain_invariant.

(* ---------- non-vacuity: a concrete program (Proof/AxHeapExample.v) ---------- *)
(* named AxCut, checked; its linearization (by the model of the compiler pass) is linearity-checked
   and takes integers *)
Example C09_example_program_checked : prog_ok hx_prog = true /\ lin_check_prog hx_lin = true /\ entry_ext hx_lin = true.
Proof. exact hx_checked. Qed.
Print Assumptions C09_example_program_checked.

(* its run with 3 iterations performs these 32 operations (allocation of 0-, 1- and 2-block objects,
   sharing, destructive load of a chain, non-destructive and destructive load of a shared list,
   erasure onto the deferred list, recycling, a closure environment) ... *)
Example C09_example_program_trace : hx_trace 3 =
  [OAllocObj [0]; OAllocObj []; OAllocObj [0; 0]; OAllocObj [0; 4160]; OShare 4224 1;
   OAllocObj [0; 0; 4224; 0; 4224]; OLoadObj 1 4352; OLoadObj 0 4224; OErase 4160; OLoadObj 0 4224; OErase 4160;
   OAllocObj []; OAllocObj [0; 0]; OAllocObj [0; 4224]; OShare 4288 1;
   OAllocObj [0; 0; 4288; 0; 4288]; OLoadObj 1 4416; OLoadObj 0 4288; OErase 4224; OLoadObj 0 4288; OErase 4224;
   OAllocObj []; OAllocObj [0; 0]; OAllocObj [0; 4288]; OShare 4352 1;
   OAllocObj [0; 0; 4352; 0; 4352]; OLoadObj 1 4160; OLoadObj 0 4352; OErase 4288; OLoadObj 0 4352; OErase 4288;
   OLoadObj 0 4096].
Proof. exact hx_trace_3. Qed.
Print Assumptions C09_example_program_trace.

(* ... it is a reachable configuration's trace, so by C09_program_heap_safe every precondition holds
   along it; the boolean form of the preconditions, evaluated, agrees *)
Example C09_example_program_reachable :
  exists c, hreach 4096 hx_lin [3; 100] (hx_trace 3) c /\ frontier (hc_heap c) = 4480.
Proof. exact (hx_reach 3 _ _ hx_frontier_3). Qed.
Print Assumptions C09_example_program_reachable.
Example C09_example_program_trace_wf :
  pre_trace (init 4096) [] (hx_trace 3) /\ pre_traceb (init 4096) [] (hx_trace 3) = true.
Proof. exact (conj (hx_trace_wf 3 _ _ hx_frontier_3) hx_trace_wf_computed). Qed.
Print Assumptions C09_example_program_trace_wf.

(* ====================================================================================== *)
(* store / load at the x86-64 level: the emitted code of `x_store` (let / create) and
   `x_load` (switch / invoke) refines the abstract `alloc_object` / `load_object`, for any number of
   fields (chains of blocks), all variables in registers or spill slots (`tpos k` is the temporary of
   position k), both load modes.  Proof/X86MemFrame.v, X86MemStore.v, X86MemLoad.v,
   X86MemStoreChain.v, X86MemLoadChain.v.  The forms with data words and frames that C06 uses:
   X86MemStoreFull.x86_store_frame, X86MemLoadChain.x86_load_frame.
     vals_ok s sp val E bs   the variables bs sit at positions E, E+1, ...: second temporaries (and
                             first temporaries of non-ext variables) hold `val`
     fsts val E bs           their pointer slots, left to right, 0 for ext variables
     alloc_object_pre        the precondition of `acquire_block` (as in C09_x86_acquire_block_reg)
                             before each block of the chain, stated on the abstract state
     lf_share_ok             every link of the chain is a block, every pointer slot is 0 or a block,
                             unused slots and slots of ext fields are 0 (what `store` establishes) *)
From SCC Require Import Model.Backend Proof.X86MemFrame Proof.X86MemStore Proof.X86MemLoad Proof.X86MemStoreChain Proof.X86MemLoadChain.

(* the straight-line stores into the reserved block *)
Theorem C09_x86_store_values :
  forall im pos (to_store_next : list binding) (remaining_plus_rest : ctx) cap cs s sp rv F val,
    store_values (rev to_store_next) remaining_plus_rest HEAP cap = Ok cs ->
    (cap = 3 \/ cap = 2)%N -> (N.of_nat (length to_store_next) <= cap)%N ->
    code_at im pos cs -> frame_ok s sp -> rget s HEAP = Some rv -> is_blk rv ->
    vals_ok s sp val (length remaining_plus_rest) to_store_next ->
    exists s', steps im pos s (pnth pos (length cs)) s' /\ same_but_temp s s' /\
      stored (hword s') (hword s) val (length remaining_plus_rest) to_store_next rv cap /\
      st_eqB (abs_heap F s')
        {| Heap.m := Heap.set_ps (abs_mem s) rv
                       (Heap.pad (N.to_nat cap) (fsts val (length remaining_plus_rest) to_store_next) ++ link_slot cap (hword s) rv);
           Heap.heap := reg_or0 s HEAP; Heap.free := reg_or0 s FREE; Heap.frontier := F |}.
Proof. exact x86_store_values_ok. Qed.
Print Assumptions C09_x86_store_values.

(* one block: store_values + acquire_block = Heap.alloc; the integer slots hold the second temporaries *)
Theorem C09_x86_store_one_block :
  forall im pos (to_store remaining : ctx) lc cs lc' s sp rv h2 F val,
    x_store to_store remaining lc = Ok (cs, lc') -> (1 <= length to_store <= 3)%nat ->
    code_at im pos cs -> labels_at im pos cs -> frame_ok s sp ->
    rget s HEAP = Some rv -> is_blk rv -> rget s FREE = Some h2 ->
    (hword s rv = 0 -> is_blk h2) ->
    (hword s rv = 0 -> hword s h2 <> 0 ->
       (forall off, off = 16 \/ off = 32 \/ off = 48 -> hword s (h2 + off) = 0 \/ is_blk (hword s (h2 + off))) /\
       bounded 3 s (hword s h2)) ->
    vals_ok s sp val (length remaining) to_store ->
    let E := length remaining in let n := length to_store in
    let res := Heap.alloc (Heap.pad 3 (fsts val E to_store)) (abs_heap F s) in
    exists s', steps im pos s (pnth pos (length cs)) s' /\
      st_eqB (abs_heap (Heap.frontier (snd res)) s') (snd res) /\ fst res = rv /\
      lget s' sp (tpos (2 * N.of_nat E)) = Some rv /\
      (forall i, (i < n)%nat -> hword s' (rv + field_offset Snd (3 - N.of_nat n + N.of_nat i)) = snd_slot val (E + i)) /\
      (forall k, (k < MAXPOS)%N -> k <> (2 * N.of_nat E)%N -> lget s' sp (tpos k) = lget s sp (tpos k)) /\
      out s' = out s /\ frame_ok s' sp.
Proof. exact x86_store_one_block_ok. Qed.
Print Assumptions C09_x86_store_one_block.

(* nothing to store: the pointer is 0, nothing is allocated *)
Theorem C09_x86_store_empty :
  forall im pos (remaining : ctx) lc cs lc' s sp,
    x_store nil remaining lc = Ok (cs, lc') -> code_at im pos cs -> frame_ok s sp ->
    lc' = lc /\
    exists s', steps im pos s (pnth pos (length cs)) s' /\
      lget s' sp (tpos (2 * N.of_nat (length remaining))) = Some 0 /\
      (forall l, loc_ok l -> l <> tpos (2 * N.of_nat (length remaining)) -> l <> XR TEMP -> lget s' sp l = lget s sp l) /\
      X86Sem.heap s' = X86Sem.heap s /\ out s' = out s /\ frame_ok s' sp.
Proof. exact x86_store_empty_ok. Qed.
Print Assumptions C09_x86_store_empty.

(* any number of fields: store_fields = Heap.alloc_object *)
Theorem C09_x86_store :
  forall im pos (to_store remaining : ctx) lc cs lc' s sp F val,
    x_store to_store remaining lc = Ok (cs, lc') -> to_store <> nil ->
    code_at im pos cs -> labels_at im pos cs -> frame_ok s sp ->
    vals_ok s sp val (length remaining) to_store ->
    alloc_object_pre (fsts val (length remaining) to_store) (abs_heap F s) ->
    let res := Heap.alloc_object (fsts val (length remaining) to_store) (abs_heap F s) in
    exists s', steps im pos s (pnth pos (length cs)) s' /\
      st_eqB (abs_heap (Heap.frontier (snd res)) s') (snd res) /\
      lget s' sp (tpos (2 * N.of_nat (length remaining))) = Some (fst res) /\
      (forall k, (k < 2 * N.of_nat (length remaining))%N -> lget s' sp (tpos k) = lget s sp (tpos k)) /\
      out s' = out s /\ frame_ok s' sp.
Proof. exact x86_store_ok. Qed.
Print Assumptions C09_x86_store.

(* one block: the header test, then release or decrement-and-share = Heap.load *)
Theorem C09_x86_load_one_block :
  forall im pos (to_load existing : ctx) lc cs lc' s sp p h F,
    x_load to_load existing lc = Ok (cs, lc') -> (1 <= length to_load <= 3)%nat ->
    code_at im pos cs -> labels_at im pos cs -> frame_ok s sp ->
    lget s sp (tpos (2 * N.of_nat (length existing))) = Some p -> is_blk p -> rget s HEAP = Some h ->
    load_pre s p (length existing) to_load ->
    exists s', steps im pos s (pnth pos (length cs)) s' /\
      st_eqB (abs_heap F s') (Heap.load p (abs_heap F s)) /\
      (forall i b, nth_error to_load i = Some b ->
         lget s' sp (tpos (2 * N.of_nat (length existing + i) + 1)) =
           Some (hword s (p + field_offset Snd (3 - N.of_nat (length to_load) + N.of_nat i))) /\
         (bchi b <> AxSyn.Ext -> lget s' sp (tpos (2 * N.of_nat (length existing + i))) =
           Some (hword s (p + field_offset Fst (3 - N.of_nat (length to_load) + N.of_nat i))))) /\
      (forall k, (k < 2 * N.of_nat (length existing))%N -> lget s' sp (tpos k) = lget s sp (tpos k)) /\
      out s' = out s /\ frame_ok s' sp.
Proof. exact x86_load_one_block_ok. Qed.
Print Assumptions C09_x86_load_one_block.

(* any number of fields: load_fields in either mode = Heap.load_object (nlinks n) *)
Theorem C09_x86_load :
  forall im pos (to_load existing : ctx) lc cs lc' s sp p h F,
    x_load to_load existing lc = Ok (cs, lc') -> to_load <> nil ->
    code_at im pos cs -> labels_at im pos cs -> frame_ok s sp ->
    lget s sp (tpos (2 * N.of_nat (length existing))) = Some p -> is_blk p -> rget s HEAP = Some h ->
    lf_share_ok (S (length to_load)) (hword s) to_load Last p ->
    (forall x, is_blk x -> AxSem.min_int + 1 <= hword s x /\ hword s x + Z.of_nat (length to_load) <= AxSem.max_int) ->
    exists s', steps im pos s (pnth pos (length cs)) s' /\
      st_eqB (abs_heap F s') (Heap.load_object (Heap.nlinks (length to_load)) p (abs_heap F s)) /\
      (forall i b, nth_error to_load i = Some b ->
         let A := lf_addrs (S (length to_load)) (hword s) to_load Last p in
         let a := nth (length A - length to_load + i) A 0 in
         lget s' sp (tpos (2 * N.of_nat (length existing + i) + 1)) = Some (hword s (a + 8)) /\
         (bchi b <> AxSyn.Ext -> lget s' sp (tpos (2 * N.of_nat (length existing + i))) = Some (hword s a))) /\
      (forall k, (k < 2 * N.of_nat (length existing))%N -> lget s' sp (tpos k) = lget s sp (tpos k)) /\
      out s' = out s /\ frame_ok s' sp.
Proof. exact x86_load_ok. Qed.
Print Assumptions C09_x86_load.

(* non-vacuity: concrete code lists in mk_image *)
Example C09_x86_store_example :
  let a := abs_heap (HEAP_BASE + 64) ex5_state in
  let res0 := Heap.alloc_object (fsts ex5_val 0 ex5_store) a in
  exists lc', x_store ex5_store nil 0 = Ok (ex5_code, lc') /\
    fsts ex5_val 0 ex5_store = 0 :: 102 :: 0 :: 106 :: 0 :: nil /\
    fst res0 = HEAP_BASE + 64 /\ Heap.frontier (snd res0) = HEAP_BASE + 192 /\
    exists s', steps (mk_image ex5_code) 1 ex5_state (pnth 1 (length ex5_code)) s' /\
      st_eqB (abs_heap (HEAP_BASE + 192) s') (snd res0) /\ rget s' 4 = Some (HEAP_BASE + 64).
Proof. exact x86_store_example. Qed.
Print Assumptions C09_x86_store_example.

Example C09_x86_load_example :
  exists lc', x_load ex5_store ex6_existing 0 = Ok (ex6_code, lc') /\
    exists s', steps (mk_image ex6_code) 1 ex6_state (pnth 1 (length ex6_code)) s' /\
      st_eqB (abs_heap (HEAP_BASE + 256) s') (Heap.load_object 1 HEAP_BASE (abs_heap (HEAP_BASE + 256) ex6_state)) /\
      sget s' ex_sp 2 = Some 11 /\ sget s' ex_sp 3 = Some (HEAP_BASE + 128) /\ sget s' ex_sp 10 = Some 55 /\ rget s' 4 = Some 777.
Proof. exact x86_load_example. Qed.
Print Assumptions C09_x86_load_example.

(* the memory part of `substitute` at the x86-64 level: the code `code_weakening_contraction` emits for
   the transposed map tm - an erase_block or a share_block_n per non-ext binding, in the order of tm -
   refines exactly the operation list the instrumented machine performs for the substitution
   (Sem/AxHeap.v `subst_ops` = these `rc_op`s for tm = Backend.transpose re (ctx_of he)).  `hb lo hi`:
   all headers and the free pointer are lo above min_int and hi below max_int, so the counts do not wrap *)
From SCC Require Import Proof.X86MemSubstOps.
Theorem C09_x86_substitute_memory :
  forall im (ptr : binding -> Z) context F sp tm lc cs lc' pos s f,
    code_weakening_contraction x86_backend tm context lc = Ok (cs, lc') ->
    code_at im pos cs -> labels_at im pos cs -> frame_ok s sp -> rget s FREE = Some f ->
    (forall b targets t, In (b, targets) tm -> bchi b <> AxSyn.Ext ->
       variable_temporary x86_backend Fst context (idn (bvar b)) = Ok t ->
       lget s sp t = Some (ptr b) /\ (ptr b = 0 \/ is_blk (ptr b))) ->
    let acts := tm_acts ptr context tm in
    hb (n_erase acts) (n_share acts) s f -> n_share acts <= 2 ^ 31 - 1 -> n_erase acts <= 2 ^ 31 - 1 ->
    let ops := flat_map (fun bt : binding * list N => rc_op (bchi (fst bt)) (ptr (fst bt)) (length (snd bt))) tm in
    exists s', steps im pos s (pnth pos (length cs)) s' /\
      st_eqB (abs_heap F s') (hrun ops (abs_heap F s)) /\
      same_but_temp_free s s' /\ frame_ok s' sp /\
      rget s' FREE = Some (Heap.free (hrun ops (abs_heap F s))).
Proof. exact x86_weakening_contraction_ok. Qed.
Print Assumptions C09_x86_substitute_memory.

Example C09_x86_substitute_memory_example :
  let ops := flat_map (fun bt : binding * list N => rc_op (bchi (fst bt)) (exs_ptr (fst bt)) (length (snd bt))) exs_tm in
  ops = Heap.OErase (HEAP_BASE + 64) :: Heap.OShare (HEAP_BASE + 128) 1 :: nil /\
  exists lc', code_weakening_contraction x86_backend exs_tm exs_ctx 0 = Ok (exs_code, lc') /\
  exists s', steps (mk_image exs_code) 1 exs_state (pnth 1 (length exs_code)) s' /\
    st_eqB (abs_heap (HEAP_BASE + 192) s') (hrun ops (abs_heap (HEAP_BASE + 192) exs_state)) /\
    rget s' FREE = Some (HEAP_BASE + 64) /\ hword s' (HEAP_BASE + 64) = HEAP_BASE + 192 /\ hword s' (HEAP_BASE + 128) = 1.
Proof. exact x86_substitute_memory_example. Qed.
Print Assumptions C09_x86_substitute_memory_example.


(* ================= known finding heap-exhaustion-unchecked ================= *)
(* The statement "from every state whose HEAP register holds a block of the region (FREE the next block, heap
   zeroed) the code of an allocation - Model/X86.v x_store of one integer field - runs to its end" is FALSE on the
   ISA model: from the last block of the region acquire_block inspects the header at HEAP_BASE + HEAP_SIZE; the
   generated code never compares the frontier with the end of the buffer (natively: corpus/c09/heap_exhaustion.sc
   overruns the calloc'd buffer silently for 524288 live blocks and dies with SIGSEGV for 600000; step heapfull-x86
   on the REAL code).  Hence `heap_fits` in the program-level theorems (Props/C06.v, where
   C06_allocation_without_heap_bound_refuted is the statement below under a second name). *)
From SCC Require Import Proof.X86HeapFull.
Theorem C09_x86_allocation_stays_in_region_refuted :
  ~ (forall h : Z, is_blk h -> hf_outcome h = hf_end).
Proof. exact alloc_in_region_refuted. Qed.
Print Assumptions C09_x86_allocation_stays_in_region_refuted.
(* the two runs behind it: from the last block but one the allocation succeeds and leaves HEAP at the last block,
   FREE at the end of the region; from the last block it faults *)
Example C09_x86_allocation_at_the_limit :
  (let r := run 50 2000 (mk_image hf_code) 1 (hf_state (HEAP_BASE + HEAP_SIZE - 128)) in
   snd (fst r) = hf_end /\
   rget (snd r) HEAP = Some (HEAP_BASE + HEAP_SIZE - 64) /\ rget (snd r) FREE = Some (HEAP_BASE + HEAP_SIZE) /\
   hword (snd r) (HEAP_BASE + HEAP_SIZE - 128 + 56) = 7) /\
  hf_outcome (HEAP_BASE + HEAP_SIZE - 64) = hf_oob_load.
Proof. exact (conj alloc_before_last_ok alloc_at_last_faults). Qed.
Print Assumptions C09_x86_allocation_at_the_limit.

(* ====================================================================================== *)
(* AArch64: the allocator code of lang/axcut2aarch64/src/memory.rs (model: Model/A64.v, ISA semantics: Sem/A64Sem.v)
   refines the SAME abstract allocator through an abstraction `abs_heap` of the AArch64 state (HEAP = X0, FREE = X1,
   header = word 0 of a block, pointer slots = the words at offsets 16/32/48); `is_blk` and the block-wise equality
   `st_eqB` are the ones of the x86-64 statements above (the ISA models place the heap at the same addresses).
   Proof/A64Mem.v, Proof/A64MemOps.v.  Differences in the hypotheses: the header tests are `CMP #0` on the 64-bit
   value, so headers that are tested must be 64-bit values (`min_int <= hword s rv <= max_int`, the lower bounds of
   erase, `bounded`); counts are updated through TEMP2 = X3, so X2 AND X3 are scratch (`sbt`).
   Every statement also says what is left alone: registers, spill slots, the stack outside the spill area
   (`stack_frame`), heap words that are not block headers (`nonblk_same`), the output.
      `C09_a64_acquire_block_spill` demands header(rv) = 0 for the acquired block rv in case (1); a variant that clears
   the header through HEAP after HEAP has moved on does not satisfy it (C09_a64_seeded_defect1_refuted).
   `a64_acquire_tail` (Proof/A64MemOps.v): the common part of the two acquire theorems, for any register holding rv. *)
From SCC Require Import Model.A64 Sem.A64Sem Proof.A64State Proof.A64Sel Proof.A64Exec Proof.A64Mem Proof.A64MemOps Proof.A64MemTop.

Theorem C09_a64_share_block :
  forall im pos t n lc s sp p F,
    let cs := fst (a_share_block_n t n lc) in
    code_at im pos cs -> labels_at im pos cs ->
    frame_ok s sp -> operand_ok t -> lget s sp t = Some p ->
    (p = 0 \/ is_blk p) ->
    (p <> 0 -> AxSem.wrap (hword s p + Z.of_N n) = hword s p + Z.of_N n) ->
    exists s', exec_to im pos s (padd pos (List.length cs)) s' /\
       st_eqB (abs_heap F s') (Heap.share p (Z.of_N n) (abs_heap F s)) /\
       sbt s s' /\ frame_ok s' sp /\
       (forall a, hword s' a = if andb (negb (p =? 0)) (a =? p) then hword s p + Z.of_N n else hword s a).
Proof. exact a64_share_block_ok. Qed.
Print Assumptions C09_a64_share_block.

Theorem C09_a64_erase_block :
  forall im pos t lc s sp p f F,
    let cs := fst (a_erase_block t lc) in
    code_at im pos cs -> labels_at im pos cs ->
    frame_ok s sp -> operand_ok t -> t <> AR FREE -> t <> AR HEAP -> lget s sp t = Some p -> rget s FREE = Some f ->
    (p = 0 \/ is_blk p) ->
    (p <> 0 -> AxSem.min_int + 1 <= hword s p <= AxSem.max_int) ->
    exists s', exec_to im pos s (padd pos (List.length cs)) s' /\
       st_eqB (abs_heap F s') (Heap.erase p (abs_heap F s)) /\
       sbtf s s' /\ frame_ok s' sp /\ rget s' FREE = Some (Heap.free (Heap.erase p (abs_heap F s))) /\
       nonblk_same s s'.
Proof. exact a64_erase_block_ok. Qed.
Print Assumptions C09_a64_erase_block.

Theorem C09_a64_release_block :
  forall im pos r s p h F,
    code_at im pos (release_block r) -> gp r ->
    rget s r = Some p -> rget s HEAP = Some h -> is_blk p ->
    exists s', exec_to im pos s (padd pos 2) s' /\
       st_eqB (abs_heap F s') (Heap.release p (abs_heap F s)) /\
       (forall r', r' <> HEAP -> rget s' r' = rget s r') /\ rget s' HEAP = Some p /\ stack s' = stack s /\ out s' = out s /\
       (forall a, hword s' a = if a =? p then h else hword s a).
Proof. exact a64_release_block_ok. Qed.
Print Assumptions C09_a64_release_block.

(* acquire_block: (1) next block of the reuse list, (2) recycle the first deferred block and erase its three
   children lazily, (3) bump; the new block in a register ... *)
Theorem C09_a64_acquire_block_reg :
  forall im pos r lc s sp rv h2 F,
    let cs := fst (acquire_block (AR r) lc) in
    code_at im pos cs -> labels_at im pos cs ->
    frame_ok s sp -> gp r -> r <> HEAP -> r <> FREE -> r <> TEMP -> r <> TEMP2 ->
    rget s HEAP = Some rv -> is_blk rv -> rget s FREE = Some h2 ->
    AxSem.min_int <= hword s rv <= AxSem.max_int ->
    (hword s rv = 0 -> is_blk h2) ->
    (hword s rv = 0 -> hword s h2 <> 0 ->
       (forall off, off = 16 \/ off = 32 \/ off = 48 -> hword s (h2 + off) = 0 \/ is_blk (hword s (h2 + off))) /\
       bounded 3 s (hword s h2)) ->
    exists s', exec_to im pos s (padd pos (List.length cs)) s' /\
      st_eqB (abs_heap (Heap.frontier (snd (Heap.acquire (abs_heap F s)))) s') (snd (Heap.acquire (abs_heap F s))) /\
      rget s' r = Some rv /\ fst (Heap.acquire (abs_heap F s)) = rv /\
      (forall r', r' <> r -> r' <> TEMP -> r' <> TEMP2 -> r' <> HEAP -> r' <> FREE -> rget s' r' = rget s r') /\
      stack s' = stack s /\ out s' = out s /\ frame_ok s' sp /\ nonblk_same s s'.
Proof. exact a64_acquire_block_reg_ok. Qed.
Print Assumptions C09_a64_acquire_block_reg.

(* ... or in a spill slot (the path of C09_a64_seeded_defect1_refuted) *)
Theorem C09_a64_acquire_block_spill :
  forall im pos q lc s sp rv h2 F,
    let cs := fst (acquire_block (AS q) lc) in
    code_at im pos cs -> labels_at im pos cs ->
    frame_ok s sp -> slot_ok q ->
    rget s HEAP = Some rv -> is_blk rv -> rget s FREE = Some h2 ->
    AxSem.min_int <= hword s rv <= AxSem.max_int ->
    (hword s rv = 0 -> is_blk h2) ->
    (hword s rv = 0 -> hword s h2 <> 0 ->
       (forall off, off = 16 \/ off = 32 \/ off = 48 -> hword s (h2 + off) = 0 \/ is_blk (hword s (h2 + off))) /\
       bounded 3 s (hword s h2)) ->
    exists s', exec_to im pos s (padd pos (List.length cs)) s' /\
      st_eqB (abs_heap (Heap.frontier (snd (Heap.acquire (abs_heap F s)))) s') (snd (Heap.acquire (abs_heap F s))) /\
      sget s' sp q = Some rv /\ fst (Heap.acquire (abs_heap F s)) = rv /\
      (forall r', r' <> TEMP -> r' <> TEMP2 -> r' <> HEAP -> r' <> FREE -> rget s' r' = rget s r') /\
      (forall q', slot_ok q' -> q' <> q -> sget s' sp q' = sget s sp q') /\ out s' = out s /\ frame_ok s' sp /\
      nonblk_same s s' /\ stack_frame s s' sp.
Proof. exact a64_acquire_block_spill_ok. Qed.
Print Assumptions C09_a64_acquire_block_spill.

Theorem C09_a64_image :
  forall cs, NoDup (label_names cs) -> code_at (mk_image cs) 1%positive cs /\ labels_at (mk_image cs) 1%positive cs.
Proof. exact mk_image_code_labels. Qed.
Print Assumptions C09_a64_image.

Theorem C09_a64_steps_run :
  forall im pc s pc' s', exec_to im pc s pc' s' ->
    exists n, forall fuel, run_chunk (n + fuel) im pc s = run_chunk fuel im pc' s'.
Proof. exact exec_to_run_chunk. Qed.
Print Assumptions C09_a64_steps_run.

(* ---------- AArch64: store (Let / Create) and load (Switch / Invoke) ---------- *)
(* Proof/A64MemStore.v, A64MemStoreChain.v, A64MemLoad.v, A64MemLoadChain.v (same structure as the x86-64 proofs; the
   abstract side - `fsts`, `alloc_object_pre`, `alloc_object_acq`, `wblocks`, `waddrs`, `lf_share_ok`, `lf_addrs` - is
   the x86-64 one, used under its qualified names).  Each theorem is stated in one form only, the one the simulation of
   C07 uses (on x86-64 that form is x86_store_frame / x86_load_frame, see above): besides the refinement of `Heap.alloc_object` /
   `Heap.load_object` it gives the data words, the frame of the heap words, of the temporaries and of the stack.
   `tpos k`: temporary of position k (registers X4..X29 for k < 26, spill slots k - 25 after, slot 0 is scratch).
   Extra hypothesis of the store: `alloc_object_hdr64` (the header of the reserved block is a 64-bit value at every
   acquire of the chain).
      The frame conjunct of `C09_a64_load` covers X10 = `tpos 6`, which the code borrows for a block pointer that sits in
   a spill slot (saved to slot 0, restored).  `load_fields` is called for the Release and for the Share branch, each
   time with `register_freed` = false; a variant that carries the flag over fails the conjunct for k = 6
   (C09_a64_seeded_defect2_refuted).  C09_a64_load is `a64_load_walk_full` (Proof/A64MemLoadChain.v). *)
From SCC Require Import Proof.X86HeapDefs Proof.X86HeapAcq.
From SCC Require Import Proof.A64MemStore Proof.A64MemStoreChain Proof.A64MemLoad Proof.A64MemLoadChain.
From SCC Require Import Model.A64 Sem.A64Sem Proof.A64State Proof.A64Exec Proof.A64Mem Proof.A64MemOps.

Theorem C09_a64_store_empty :
  forall im pos (remaining : ctx) lc cs lc' s sp,
    a_store nil remaining lc = Ok (cs, lc') -> code_at im pos cs -> frame_ok s sp ->
    lc' = lc /\
    exists s', exec_to im pos s (padd pos (length cs)) s' /\
      lget s' sp (tpos (2 * N.of_nat (length remaining))) = Some 0 /\
      (forall l, loc_ok l -> l <> tpos (2 * N.of_nat (length remaining)) -> l <> AR TEMP -> lget s' sp l = lget s sp l) /\
      heap s' = heap s /\ out s' = out s /\ frame_ok s' sp /\ stack_frame s s' sp.
Proof. exact a64_store_empty_ok. Qed.
Print Assumptions C09_a64_store_empty.

Theorem C09_a64_store_one_block :
  forall im pos (to_store remaining : ctx) lc cs lc' s sp rv h2 F val,
    a_store to_store remaining lc = Ok (cs, lc') -> (1 <= length to_store <= 3)%nat ->
    code_at im pos cs -> labels_at im pos cs -> frame_ok s sp ->
    rget s HEAP = Some rv -> is_blk rv -> rget s FREE = Some h2 ->
    AxSem.min_int <= hword s rv <= AxSem.max_int ->
    (hword s rv = 0 -> is_blk h2) ->
    (hword s rv = 0 -> hword s h2 <> 0 ->
       (forall off, off = 16 \/ off = 32 \/ off = 48 -> hword s (h2 + off) = 0 \/ is_blk (hword s (h2 + off))) /\
       bounded 3 s (hword s h2)) ->
    vals_ok s sp val (length remaining) to_store ->
    let E := length remaining in let n := length to_store in
    let res := Heap.alloc (Heap.pad 3 (fsts val E to_store)) (abs_heap F s) in
    exists s', exec_to im pos s (padd pos (length cs)) s' /\
      st_eqB (abs_heap (Heap.frontier (snd res)) s') (snd res) /\ fst res = rv /\
      lget s' sp (tpos (2 * N.of_nat E)) = Some rv /\
      (forall i, (i < n)%nat -> hword s' (rv + field_offset Snd (3 - N.of_nat n + N.of_nat i)) = snd_slot val (E + i)) /\
      (forall k, (k < MAXPOS)%N -> k <> (2 * N.of_nat E)%N -> lget s' sp (tpos k) = lget s sp (tpos k)) /\
      out s' = out s /\ frame_ok s' sp /\ stack_frame s s' sp.
Proof. exact a64_store_one_block_ok. Qed.
Print Assumptions C09_a64_store_one_block.

(* any number of fields (chains), the new block pointers in registers or spill slots: a_store = Heap.alloc_object *)
Theorem C09_a64_store :
  forall im pos (to_store remaining : ctx) lc cs lc' s sp F val,
    a_store to_store remaining lc = Ok (cs, lc') -> to_store <> nil ->
    code_at im pos cs -> labels_at im pos cs -> frame_ok s sp ->
    vals_ok s sp val (length remaining) to_store ->
    let E := length remaining in let n := length to_store in let k := Heap.nlinks n in
    let fields := fsts val E to_store in
    alloc_object_pre fields (abs_heap F s) -> alloc_object_hdr64 fields (abs_heap F s) ->
    NoDup (alloc_object_acq fields (abs_heap F s)) ->
    let res := Heap.alloc_object fields (abs_heap F s) in
    exists s', exec_to im pos s (padd pos (length cs)) s' /\
      st_eqB (abs_heap (Heap.frontier (snd res)) s') (snd res) /\
      lget s' sp (tpos (2 * N.of_nat E)) = Some (fst res) /\
      (forall q, (q < 2 * N.of_nat E)%N -> lget s' sp (tpos q) = lget s sp (tpos q)) /\
      out s' = out s /\ frame_ok s' sp /\
      wblocks k (hword s') (fst res) = rev (alloc_object_acq fields (abs_heap F s)) /\
      Forall is_blk (wblocks k (hword s') (fst res)) /\
      (let A := waddrs k (hword s') (fst res) in
       (forall i b, nth_error to_store i = Some b ->
          let a := nth (length A - n + i) A 0 in
          hword s' a = fst_slot val (E + i) b /\ hword s' (a + 8) = snd_slot val (E + i)) /\
       (forall j, (j < length A - n)%nat -> hword s' (nth j A 0) = 0)) /\
      (forall a, ~ is_blk a -> (forall b, In b (alloc_object_acq fields (abs_heap F s)) -> a < b \/ b + 64 <= a) -> hword s' a = hword s a) /\
      stack_frame s s' sp.
Proof. exact a64_store_full. Qed.
Print Assumptions C09_a64_store.

Theorem C09_a64_load_one_block :
  forall im pos (to_load existing : ctx) lc cs lc' s sp p h F,
    a_load to_load existing lc = Ok (cs, lc') -> (1 <= length to_load <= 3)%nat ->
    code_at im pos cs -> labels_at im pos cs -> frame_ok s sp ->
    lget s sp (tpos (2 * N.of_nat (length existing))) = Some p -> is_blk p -> rget s HEAP = Some h ->
    load_pre s p (length existing) to_load ->
    exists s', exec_to im pos s (padd pos (length cs)) s' /\
      st_eqB (abs_heap F s') (Heap.load p (abs_heap F s)) /\
      (forall i b, nth_error to_load i = Some b ->
         lget s' sp (tpos (2 * N.of_nat (length existing + i) + 1)) =
           Some (hword s (p + field_offset Snd (3 - N.of_nat (length to_load) + N.of_nat i))) /\
         (bchi b <> AxSyn.Ext -> lget s' sp (tpos (2 * N.of_nat (length existing + i))) =
           Some (hword s (p + field_offset Fst (3 - N.of_nat (length to_load) + N.of_nat i))))) /\
      (forall k, (k < 2 * N.of_nat (length existing))%N -> lget s' sp (tpos k) = lget s sp (tpos k)) /\
      out s' = out s /\ frame_ok s' sp.
Proof. exact a64_load_one_block_ok. Qed.
Print Assumptions C09_a64_load_one_block.

(* any number of fields, both modes, block pointers in registers or in spill slots (then worked on in X10, which is
   saved to slot 0 and restored): a_load = Heap.load_object *)
Theorem C09_a64_load :
  forall im pos (to_load existing : ctx) lc cs lc' s sp p h F,
    a_load to_load existing lc = Ok (cs, lc') -> to_load <> nil ->
    code_at im pos cs -> labels_at im pos cs -> frame_ok s sp ->
    lget s sp (tpos (2 * N.of_nat (length existing))) = Some p -> is_blk p -> rget s HEAP = Some h ->
    lf_share_ok (S (length to_load)) (hword s) to_load X86.Last p ->
    (forall x, is_blk x -> AxSem.min_int + 1 <= hword s x /\ hword s x + Z.of_nat (length to_load) <= AxSem.max_int) ->
    exists s', exec_to im pos s (padd pos (length cs)) s' /\
      st_eqB (abs_heap F s') (Heap.load_object (Heap.nlinks (length to_load)) p (abs_heap F s)) /\
      (forall i b, nth_error to_load i = Some b ->
         let A := lf_addrs (S (length to_load)) (hword s) to_load X86.Last p in
         let a := nth (length A - length to_load + i) A 0 in
         lget s' sp (tpos (2 * N.of_nat (length existing + i) + 1)) = Some (hword s (a + 8)) /\
         (bchi b <> AxSyn.Ext -> lget s' sp (tpos (2 * N.of_nat (length existing + i))) = Some (hword s a))) /\
      (forall k, (k < 2 * N.of_nat (length existing))%N -> lget s' sp (tpos k) = lget s sp (tpos k)) /\
      out s' = out s /\ frame_ok s' sp /\
      nonblk_same s s' /\ (exists h', rget s' HEAP = Some h') /\ rget s' FREE = rget s FREE /\ stack_frame s s' sp.
Proof. exact a64_load_full. Qed.
Print Assumptions C09_a64_load.

(* non-vacuity: a 5-field object (2 blocks) stored behind 13 variables - the new block pointers go to spill slots, the
   path of C09_a64_seeded_defect1_refuted - and a shared 2-block object loaded behind 13 variables - every block pointer in a spill
   slot, X10 evacuated and restored, the path of C09_a64_seeded_defect2_refuted *)
Example C09_a64_store_example :
  let a := abs_heap (HEAP_BASE + 64) A64MemStoreChain.ex5_state in
  let res := Heap.alloc_object (fsts A64MemStoreChain.ex5_val 13 A64MemStoreChain.ex5_store) a in
  exists lc', a_store A64MemStoreChain.ex5_store A64MemStoreChain.ex5_rem 0 = Ok (A64MemStoreChain.ex5_code, lc') /\
  fsts A64MemStoreChain.ex5_val 13 A64MemStoreChain.ex5_store = 0 :: 128 :: 0 :: 132 :: 0 :: nil /\ tpos 26 = AS 1 /\
  fst res = HEAP_BASE + 64 /\ Heap.frontier (snd res) = HEAP_BASE + 192 /\
  exists s', exec_to (mk_image A64MemStoreChain.ex5_code) 1 A64MemStoreChain.ex5_state (padd 1 (length A64MemStoreChain.ex5_code)) s' /\
     st_eqB (abs_heap (HEAP_BASE + 192) s') (snd res) /\ sget s' A64MemStoreChain.ex_sp 1 = Some (HEAP_BASE + 64) /\
     wblocks 1 (hword s') (HEAP_BASE + 64) = (HEAP_BASE + 64) :: HEAP_BASE :: nil /\
     hword s' (HEAP_BASE + 64 + 16 + 8) = 127 /\ hword s' (HEAP_BASE + 64 + 32) = 128 /\ hword s' (HEAP_BASE + 48 + 8) = 135 /\
     stack_frame A64MemStoreChain.ex5_state s' A64MemStoreChain.ex_sp.
Proof. exact a64_store_example. Qed.
Print Assumptions C09_a64_store_example.

Example C09_a64_load_example :
  exists lc', a_load X86MemStoreChain.ex5_store ex13_existing 0 = Ok (ex13_code, lc') /\
  hword ex13_state HEAP_BASE = 1 /\ rget ex13_state TEMPORARY_TEMP = Some 777 /\
  exists s', exec_to (mk_image ex13_code) 1 ex13_state (padd 1 (length ex13_code)) s' /\
     st_eqB (abs_heap (HEAP_BASE + 256) s') (Heap.load_object 1 HEAP_BASE (abs_heap (HEAP_BASE + 256) ex13_state)) /\
     sget s' A64MemLoadChain.ex_sp 2 = Some 11 /\ sget s' A64MemLoadChain.ex_sp 3 = Some (HEAP_BASE + 128) /\
     sget s' A64MemLoadChain.ex_sp 10 = Some 55 /\ rget s' TEMPORARY_TEMP = Some 777.
Proof. exact a64_load_example. Qed.
Print Assumptions C09_a64_load_example.

(* the memory part of `substitute` on AArch64 (Proof/A64MemSubstOps.v; the shape of C09_x86_substitute_memory): the code
   `code_weakening_contraction` emits for the transposed map tm refines exactly the operation list the instrumented machine
   performs for the substitution; `hb lo hi` keeps the counts from wrapping and every tested header a 64-bit value *)
From SCC Require Import Proof.A64MemSubstOps.
Theorem C09_a64_substitute_memory :
  forall im (ptr : binding -> Z) context F sp tm lc cs lc' pos s f,
    code_weakening_contraction a64_backend tm context lc = Ok (cs, lc') ->
    code_at im pos cs -> labels_at im pos cs -> frame_ok s sp -> rget s FREE = Some f ->
    (forall b targets t, In (b, targets) tm -> bchi b <> AxSyn.Ext ->
       variable_temporary a64_backend Fst context (idn (bvar b)) = Ok t ->
       lget s sp t = Some (ptr b) /\ (ptr b = 0 \/ is_blk (ptr b))) ->
    let acts := A64MemSubstOps.tm_acts ptr context tm in
    A64MemSubstOps.hb (A64MemSubstOps.n_erase acts) (A64MemSubstOps.n_share acts) s f ->
    A64MemSubstOps.n_share acts <= 2 ^ 31 - 1 -> A64MemSubstOps.n_erase acts <= 2 ^ 31 - 1 ->
    let ops := flat_map (fun bt : binding * list N => rc_op (bchi (fst bt)) (ptr (fst bt)) (length (snd bt))) tm in
    exists s', exec_to im pos s (padd pos (length cs)) s' /\
      st_eqB (abs_heap F s') (hrun ops (abs_heap F s)) /\
      sbtf s s' /\ frame_ok s' sp /\
      rget s' FREE = Some (Heap.free (hrun ops (abs_heap F s))).
Proof. exact a64_weakening_contraction_ok. Qed.
Print Assumptions C09_a64_substitute_memory.

(* Two defective variants of the model's code refute the statements above on concrete states (Proof/A64MemDefects.v, by
   evaluation of the ISA model).  (1) acquire_block into a spill slot with `STR XZR, [HEAP]` for `STR XZR, [TEMP]`, from a
   state whose reuse list has two blocks: the free-list link stays in the header of the acquired block. *)
From SCC Require Import Proof.A64MemDefects.
Theorem C09_a64_seeded_defect1_refuted :
  let a := abs_heap (HEAP_BASE + 128) d1_state in
  fst (Heap.acquire a) = HEAP_BASE /\ Heap.hdr (Heap.m (snd (Heap.acquire a)) HEAP_BASE) = 0 /\
  (exists s', final_state (fst (acquire_block (AS 1) 0)) d1_state = Some s' /\
              sget s' d1_sp 1 = Some HEAP_BASE /\ hword s' HEAP_BASE = 0 /\ rget s' HEAP = Some (HEAP_BASE + 64)) /\
  (exists s', final_state (fst (acquire_block_bad (AS 1) 0)) d1_state = Some s' /\
              sget s' d1_sp 1 = Some HEAP_BASE /\ hword s' HEAP_BASE = HEAP_BASE + 64 /\
              ~ st_eqB (abs_heap (HEAP_BASE + 128) s') (snd (Heap.acquire a))).
Proof. exact defect1_refutes_acquire_spill. Qed.
Print Assumptions C09_a64_seeded_defect1_refuted.
(* (2) `register_freed` carried over from the Release to the Share call of load_fields, on the load of
   C09_a64_load_example behind 13 variables: X10 = `tpos 6`, a live variable of `existing`, is not restored *)
Theorem C09_a64_seeded_defect2_refuted :
  lget ex13_state A64MemLoadChain.ex_sp (tpos 6) = Some 777 /\ (6 < 2 * N.of_nat (length ex13_existing))%N /\
  (exists s', final_state ex13_code ex13_state = Some s' /\ lget s' A64MemLoadChain.ex_sp (tpos 6) = Some 777) /\
  (exists s', final_state ex13_code_bad ex13_state = Some s' /\ lget s' A64MemLoadChain.ex_sp (tpos 6) <> Some 777).
Proof. exact defect2_refutes_load. Qed.
Print Assumptions C09_a64_seeded_defect2_refuted.

(* ====================================================================================== *)
(* RISC-V: store (Let / Create) and load (Switch / Invoke) of objects of ANY number of fields, the
   code of lang/axcut2rv64/src/memory.rs `store` / `store_fields` / `load` / `load_fields` (with block positions) as
   transliterated in Model/RV.v (`r_store`, `r_load`), on Sem/RVSem.v.  Proof/RVMemStoreChain.v, RVMemLoadChain.v.
   `RVHeapAbs.abs_heap F s` abstracts a RISC-V state (HEAP = X2, FREE = X3, header = word 0 of a block, pointer slots =
   the words at 16/32/48); `RVHeapAbs.is_blk` / `st_eqB` are convertible with the x86-64 ones above (the ISA models
   place the heap at the same addresses), so the abstract side - `fsts`, `alloc_object_pre`, `alloc_object_acq`,
   `wblocks`, `waddrs`, `lf_share_ok`, `lf_addrs` - is literally shared with x86-64 / AArch64.  RISC-V has no spill
   slots: the temporary of position k is the register X(k + 4) (`RVHMem.rtp`).  `RVSel.star` is the small-step closure
   that C08 ties to the executable machine (`C08_run_chunk_one`); `RVSel.placed` = code and labels of the fragment
   sit in the image (`C08_placed_mk_image`).  The allocator operations themselves: `C08_rv_share_block_heap`,
   `C08_rv_erase_block_heap`, `C08_rv_release_block_heap`, `C08_rv_acquire_block_heap` (Props/C08.v). *)
From SCC Require Proof.RVSel Proof.RVHeapAbs Proof.RVHMem Proof.RVMemStoreChain Proof.RVMemLoadChain Proof.RVMemChainExample.
From SCC Require Model.RV Sem.RVSem.

(* any number of fields (chains): r_store = Heap.alloc_object *)
Theorem C09_rv_store :
  forall im pos (to_store remaining : ctx) lc cs lc' s F val,
    RV.r_store to_store remaining lc = Ok (cs, lc') -> to_store <> nil ->
    RVSel.placed im pos cs ->
    RVHMem.vals_ok s val (length remaining) to_store ->
    let E := length remaining in let n := length to_store in let k := Heap.nlinks n in
    let fields := fsts val E to_store in
    alloc_object_pre fields (RVHeapAbs.abs_heap F s) ->
    NoDup (alloc_object_acq fields (RVHeapAbs.abs_heap F s)) ->
    let res := Heap.alloc_object fields (RVHeapAbs.abs_heap F s) in
    exists s', RVSel.star im pos s (RVSel.padd pos (length cs)) s' /\
      RVHeapAbs.st_eqB (RVHeapAbs.abs_heap (Heap.frontier (snd res)) s') (snd res) /\
      RVSem.rget s' (RVHMem.rtp (2 * N.of_nat E)) = Some (fst res) /\
      (forall q, (q < 2 * N.of_nat E)%N -> RVSem.rget s' (RVHMem.rtp q) = RVSem.rget s (RVHMem.rtp q)) /\
      wblocks k (RVSel.hword s') (fst res) = rev (alloc_object_acq fields (RVHeapAbs.abs_heap F s)) /\
      Forall RVHeapAbs.is_blk (wblocks k (RVSel.hword s') (fst res)) /\
      (let A := waddrs k (RVSel.hword s') (fst res) in
       (forall i b, nth_error to_store i = Some b ->
          let a := nth (length A - n + i) A 0 in
          RVSel.hword s' a = fst_slot val (E + i) b /\ RVSel.hword s' (a + 8) = snd_slot val (E + i)) /\
       (forall j, (j < length A - n)%nat -> RVSel.hword s' (nth j A 0) = 0)) /\
      (forall a, ~ RVHeapAbs.is_blk a -> (forall b, In b (alloc_object_acq fields (RVHeapAbs.abs_heap F s)) -> a < b \/ b + 64 <= a) ->
         RVSel.hword s' a = RVSel.hword s a).
Proof. exact RVMemStoreChain.rv_store_chain. Qed.
Print Assumptions C09_rv_store.

(* no field: the null pointer, no allocation *)
Theorem C09_rv_store_empty :
  forall im pos (remaining : ctx) lc cs lc' s,
    RV.r_store nil remaining lc = Ok (cs, lc') -> RVSel.placed im pos cs ->
    lc' = lc /\
    exists s', RVSel.star im pos s (RVSel.padd pos (length cs)) s' /\
      RVSem.rget s' (RVHMem.rtp (2 * N.of_nat (length remaining))) = Some 0 /\
      (forall r, r <> RVHMem.rtp (2 * N.of_nat (length remaining)) -> RVSem.rget s' r = RVSem.rget s r) /\
      (forall a, RVSel.hword s' a = RVSel.hword s a).
Proof. exact RVMemStoreChain.rv_store_empty. Qed.
Print Assumptions C09_rv_store_empty.

(* any number of fields, both modes (header 0: every block of the chain released, head first; otherwise the head's count
   decremented and every loaded pointer shared): r_load = Heap.load_object (nlinks n) p *)
Theorem C09_rv_load :
  forall im pos (to_load existing : ctx) lc cs lc' s p F,
    RV.r_load to_load existing lc = Ok (cs, lc') -> to_load <> nil ->
    RVSel.placed im pos cs ->
    RVSem.rget s (RVHMem.rtp (2 * N.of_nat (length existing))) = Some p -> RVHeapAbs.is_blk p ->
    (exists h, RVSem.rget s RV.HEAP = Some h) -> (exists f0, RVSem.rget s RV.FREE = Some f0) ->
    lf_share_ok (S (length to_load)) (RVSel.hword s) to_load X86.Last p ->
    (forall x, RVHeapAbs.is_blk x -> AxSem.min_int + 1 <= RVSel.hword s x /\ RVSel.hword s x + Z.of_nat (length to_load) <= AxSem.max_int) ->
    exists s', RVSel.star im pos s (RVSel.padd pos (length cs)) s' /\
      RVHeapAbs.st_eqB (RVHeapAbs.abs_heap F s') (Heap.load_object (Heap.nlinks (length to_load)) p (RVHeapAbs.abs_heap F s)) /\
      (forall i b, nth_error to_load i = Some b ->
         let A := lf_addrs (S (length to_load)) (RVSel.hword s) to_load X86.Last p in
         let a := nth (length A - length to_load + i) A 0 in
         RVSem.rget s' (RVHMem.rtp (2 * N.of_nat (length existing + i) + 1)) = Some (RVSel.hword s (a + 8)) /\
         (bchi b <> AxSyn.Ext -> RVSem.rget s' (RVHMem.rtp (2 * N.of_nat (length existing + i))) = Some (RVSel.hword s a))) /\
      (forall k, (k < 2 * N.of_nat (length existing))%N -> RVSem.rget s' (RVHMem.rtp k) = RVSem.rget s (RVHMem.rtp k)) /\
      RVMemLoadChain.nonblk_same s s' /\ (exists h', RVSem.rget s' RV.HEAP = Some h') /\ RVSem.rget s' RV.FREE = RVSem.rget s RV.FREE.
Proof. exact RVMemLoadChain.rv_load_chain. Qed.
Print Assumptions C09_rv_load.

(* non-vacuity: a 5-field object (2 blocks) stored behind three variables on a fresh heap; a SHARED 2-block object with
   five fields loaded behind three variables (X8 = `rtp 4`, a register of the existing context, keeps its value) *)
Example C09_rv_store_example :
  let a := RVHeapAbs.abs_heap (RVSem.HEAP_BASE + 64) RVMemChainExample.ex5_state in
  let res := Heap.alloc_object (fsts RVMemChainExample.ex5_val 3 RVMemChainExample.ex5_store) a in
  exists lc', RV.r_store RVMemChainExample.ex5_store RVMemChainExample.ex5_rem 0 = Ok (RVMemChainExample.ex5_code, lc') /\
  fsts RVMemChainExample.ex5_val 3 RVMemChainExample.ex5_store = 0 :: 108 :: 0 :: 112 :: 0 :: nil /\
  fst res = RVSem.HEAP_BASE + 64 /\ Heap.frontier (snd res) = RVSem.HEAP_BASE + 192 /\
  exists s', RVSel.star (RVSem.mk_image RVMemChainExample.ex5_code) 1 RVMemChainExample.ex5_state
               (RVSel.padd 1 (length RVMemChainExample.ex5_code)) s' /\
     RVHeapAbs.st_eqB (RVHeapAbs.abs_heap (RVSem.HEAP_BASE + 192) s') (snd res) /\
     RVSem.rget s' (RVHMem.rtp 6) = Some (RVSem.HEAP_BASE + 64) /\
     wblocks 1 (RVSel.hword s') (RVSem.HEAP_BASE + 64) = (RVSem.HEAP_BASE + 64) :: RVSem.HEAP_BASE :: nil /\
     RVSel.hword s' (RVSem.HEAP_BASE + 64 + 16 + 8) = 107 /\ RVSel.hword s' (RVSem.HEAP_BASE + 64 + 32) = 108 /\
     RVSel.hword s' (RVSem.HEAP_BASE + 48 + 8) = 115.
Proof. exact RVMemChainExample.rv_store_example. Qed.
Print Assumptions C09_rv_store_example.

Example C09_rv_load_example :
  exists lc', RV.r_load RVMemChainExample.ex5_store RVMemChainExample.ex3_existing 0 = Ok (RVMemChainExample.ex3_code, lc') /\
  RVSel.hword RVMemChainExample.ex3_state RVSem.HEAP_BASE = 1 /\ RVSem.rget RVMemChainExample.ex3_state (RVHMem.rtp 4) = Some 777 /\
  exists s', RVSel.star (RVSem.mk_image RVMemChainExample.ex3_code) 1 RVMemChainExample.ex3_state
               (RVSel.padd 1 (length RVMemChainExample.ex3_code)) s' /\
     RVHeapAbs.st_eqB (RVHeapAbs.abs_heap (RVSem.HEAP_BASE + 256) s')
       (Heap.load_object 1 RVSem.HEAP_BASE (RVHeapAbs.abs_heap (RVSem.HEAP_BASE + 256) RVMemChainExample.ex3_state)) /\
     RVSem.rget s' (RVHMem.rtp 7) = Some 11 /\ RVSem.rget s' (RVHMem.rtp 8) = Some (RVSem.HEAP_BASE + 128) /\
     RVSem.rget s' (RVHMem.rtp 15) = Some 55 /\ RVSem.rget s' (RVHMem.rtp 4) = Some 777.
Proof. exact RVMemChainExample.rv_load_example. Qed.
Print Assumptions C09_rv_load_example.
