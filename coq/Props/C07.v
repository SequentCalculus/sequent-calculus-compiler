(* C07: AArch64 code generation preserves AxCut semantics.  Only statements; proofs in Proof/A64State.v,
   A64ImmHw.v, A64Imm.v, A64Sel.v, A64PM.v (selection), Proof/A64Sim*.v + SimFrag.v (fragments; print, prologue /
   epilogue and substitution through the C13 / C11 theorems), Proof/A64H*.v + HRep.v over C09_a64_... (heap
   statements), Proof/A64Wf*.v (checks on the output as theorems).  The file follows Props/C06.v part by part;
   comments here say what differs on AArch64.
   Layers (DESIGN.md, C07): L0 AxCut linear machine -> L1 abstract back-end operations (Model/Backend.v)
   -> L2 AArch64 instructions (Model/A64.v) on Sem/A64Sem.v.
   1. L1 -> L2, instruction selection (C07_selection_..., C07_load_immediate_every_value,
      C07_flags_decide_signed_comparison, C07_constants_agree): every placement of target and operands in
      registers or spill slots, every aliasing, every contents; only the target and the documented scratch
      change (X2 = TEMP, X3 = TEMP2; for a fully spilled `rem` also slot 0, X10 being evacuated and restored).
   2. L0 -> L2 for the integer fragment and closures without captured variables: C07_sim_..., C07_sim_exec / _cf,
      C07_codegen_simulates_int / _cf.
   3. Heap statements (C07_sim_let ... C07_sim_exec_heap; memory operations: C09_a64_... of Props/C09.v),
      C07_codegen_simulates_partial (asm_wf, code_small as hypotheses).
   4. MAIN THEOREMS C07_codegen_simulates, C07_codegen_correct_linearized: guards on the program instead.
   Left out: divergence; programs outside the guards and the 64-bit side conditions lits_i64 / args_i64 /
   tags_i64; runs that leave the heap region (heap_fits); non-integer entries; ann_check_prog for programs that are
   not outputs of the linearizer.  C07_codegen_correct_statement is a Definition only.
   Trusted: Sem/A64Sem.v (instructions, external print call); Model/A64.v and Model/Backend.v are tied to the crate
   by the correspondence check and by execution of the real output on the ISA model (evidence file). *)
From Coq Require Import List ZArith NArith String Bool.
From SCC Require Import Model.ParMoves.
From SCC Require Import Lang.AxSyn Sem.AxSem Model.Backend Model.A64 Sem.A64Sem
  Proof.A64State Proof.A64ImmHw Proof.A64Imm Proof.A64Sel Proof.A64PM.
Import ListNotations.
Open Scope Z_scope.

(* all five operators, against the AxCut meaning of the operator (64-bit wrapping, truncating
   division; the undefined cases are excluded by `eval_op ... = OpVal v`) *)
Theorem C07_selection_arith :
  forall (im : image) (o : binop) (s : astate) (sp : Z) (t s1 s2 : atemp) (a b v : Z),
    frame_ok s sp -> rem_operand_ok t -> rem_operand_ok s1 -> rem_operand_ok s2 ->
    lget s sp s1 = Some a -> lget s sp s2 = Some b -> in64 a -> eval_op o a b = OpVal v ->
    exists s', run_straight im (a_arith o t s1 s2) s = MOk s' /\
               lget s' sp t = Some v /\ preserved_rem s s' sp t.
Proof. exact a64_arith_ok. Qed.
Print Assumptions C07_selection_arith.

(* the three-address core shared by add/sub/mul/div: loads of spilled operands into X2/X3, one
   instruction, store of a spilled target - any aliasing of target and operands *)
Theorem C07_selection_simple_op :
  forall (im : image) f g ok (s : astate) (sp : Z) (t s1 s2 : atemp) (a b : Z),
    simple_op im f g ok ->
    frame_ok s sp -> operand_ok t -> operand_ok s1 -> operand_ok s2 ->
    lget s sp s1 = Some a -> lget s sp s2 = Some b -> ok a b ->
    exists s', run_straight im (a_op f t s1 s2) s = MOk s' /\
               lget s' sp t = Some (g a b) /\ preserved s s' sp t.
Proof. exact a64_simple_op_ok. Qed.
Print Assumptions C07_selection_simple_op.

(* rem = SDIV + MSUB through X3, with X10 evacuated to the scratch slot when everything is spilled *)
Theorem C07_selection_rem :
  forall (im : image) (s : astate) (sp : Z) (t s1 s2 : atemp) (a b : Z),
    frame_ok s sp -> rem_operand_ok t -> rem_operand_ok s1 -> rem_operand_ok s2 ->
    lget s sp s1 = Some a -> lget s sp s2 = Some b -> in64 a -> div_defined a b ->
    exists s', run_straight im (a_op r_rem t s1 s2) s = MOk s' /\
               lget s' sp t = Some (Z.rem a b) /\ preserved_rem s s' sp t.
Proof. exact a64_rem_ok. Qed.
Print Assumptions C07_selection_rem.

Theorem C07_selection_mov :
  forall (im : image) (s : astate) (sp : Z) (t src : atemp),
    frame_ok s sp -> operand_ok t -> operand_ok src ->
    exists s', run_straight im (a_mov t src) s = MOk s' /\
               lget s' sp t = lget s sp src /\ preserved s s' sp t.
Proof. exact a64_mov_ok. Qed.
Print Assumptions C07_selection_mov.

(* literal synthesis: for EVERY 64-bit value the MOVZ/MOVN/MOVK sequence leaves the value in the
   register and touches nothing else (half-word selection: Proof/A64ImmHw.hw_load_immediate_ok, by an
   invariant of the walk over the four half-word positions) *)
Theorem C07_load_immediate_every_value :
  forall (im : image) (n : N) (v : Z) (s : astate),
    - 2 ^ 63 <= v < 2 ^ 63 ->
    exists s', run_straight im (imm_code (X n) v) s = MOk s' /\ xget s' n = Some v /\ only_reg n s s'.
Proof. exact a64_imm_code_ok. Qed.
Print Assumptions C07_load_immediate_every_value.
(* ... into a register or, through X2, into a spill slot *)
Theorem C07_selection_load_immediate :
  forall (im : image) (s : astate) (sp : Z) (t : atemp) (v : Z),
    frame_ok s sp -> operand_ok t -> in64 v ->
    exists s', run_straight im (a_load_immediate t v) s = MOk s' /\
               lget s' sp t = Some v /\ preserved s s' sp t.
Proof. exact a64_load_immediate_ok. Qed.
Print Assumptions C07_selection_load_immediate.

(* comparisons: the flags are those of SUBS on the two operands ... *)
Theorem C07_selection_compare :
  forall (im : image) (s : astate) (sp : Z) (t1 t2 : atemp) (a b : Z),
    frame_ok s sp -> operand_ok t1 -> operand_ok t2 ->
    lget s sp t1 = Some a -> lget s sp t2 = Some b ->
    exists s', run_straight im (compare t1 t2) s = MOk s' /\ flags s' = Some (cmp_flags a b) /\
               flags_preserving s s' sp.
Proof. exact a64_compare_ok. Qed.
Print Assumptions C07_selection_compare.
Theorem C07_selection_compare_zero :
  forall (im : image) (s : astate) (sp : Z) (t : atemp) (a : Z),
    frame_ok s sp -> operand_ok t -> lget s sp t = Some a ->
    exists s', run_straight im (compare_immediate t 0) s = MOk s' /\ flags s' = Some (cmp_flags a 0) /\
               flags_preserving s s' sp.
Proof. exact a64_compare_zero_ok. Qed.
Print Assumptions C07_selection_compare_zero.
(* ... the NZCV conditions EQ NE LT LE GT GE decide exactly the signed comparisons ... *)
Theorem C07_flags_decide_signed_comparison :
  forall (sort : ifsort) (a b : Z), in64 a -> in64 b -> cond_holds sort (cmp_flags a b) = eval_cmp sort a b.
Proof. exact cond_holds_cmp. Qed.
Print Assumptions C07_flags_decide_signed_comparison.
(* ... so the conditional branch is taken exactly when the AxCut comparison holds (all six sorts) *)
Theorem C07_selection_conditional_branch :
  forall (im : image) (sort : ifsort) (l : string) (s : astate) (a b : Z),
    flags s = Some (cmp_flags a b) -> in64 a -> in64 b ->
    step im (bcc sort l) s = if eval_cmp sort a b then goto_label im s l else Next s.
Proof. exact a64_bcc_step. Qed.
Print Assumptions C07_selection_conditional_branch.

Theorem C07_selection_load_label :
  forall (im : image) (s : astate) (sp : Z) (t : atemp) (l : string) (addr : Z),
    frame_ok s sp -> operand_ok t -> label_addr im l = Some addr ->
    exists s', run_straight im (a_load_label t l) s = MOk s' /\ lget s' sp t = Some addr /\ preserved s s' sp t.
Proof. exact a64_load_label_ok. Qed.
Print Assumptions C07_selection_load_label.
Theorem C07_selection_jump :
  forall (im : image) (s : astate) (sp : Z) (t : atemp) (addr : Z),
    frame_ok s sp -> operand_ok t -> lget s sp t = Some addr ->
    exists s', run_straight im (removelast (a_jump t)) s = MOk s' /\
               step im (last (a_jump t) RET) s' = goto_addr im s' addr /\
               (forall l, loc_ok l -> l <> AR TEMP -> lget s' sp l = lget s sp l) /\ heap s' = heap s /\ out s' = out s.
Proof. exact a64_jump_ok. Qed.
Print Assumptions C07_selection_jump.
Theorem C07_selection_add_and_jump :
  forall (im : image) (s : astate) (sp : Z) (t : atemp) (i addr : Z),
    frame_ok s sp -> operand_ok t -> lget s sp t = Some addr -> (add_imm_fits i = false -> in64 i) ->
    exists s', run_straight im (removelast (a_add_and_jump t i)) s = MOk s' /\
               step im (last (a_add_and_jump t i) RET) s' = goto_addr im s' (wrap (addr + i)) /\
               heap s' = heap s /\ out s' = out s.
Proof. exact a64_add_and_jump_ok. Qed.
Print Assumptions C07_selection_add_and_jump.
(* the offset of the table dispatch: an ADD immediate when it has 12 bits, else synthesised in X3 (TEMP2); see the
   finding "tag dispatch immediate" (docs/C14.md); only the target register and X3 change *)
Theorem C07_selection_add_offset :
  forall (im : image) (s : astate) (n : N) (i a : Z),
    gp (X n) -> n <> 3%N -> xget s n = Some a -> (add_imm_fits i = false -> in64 i) ->
    exists s', run_straight im (add_offset (X n) i) s = MOk s' /\ xget s' n = Some (wrap (a + i)) /\
               (forall m, m <> n -> m <> 3%N -> xget s' m = xget s m) /\
               spv s' = spv s /\ heap s' = heap s /\ stack s' = stack s /\ out s' = out s.
Proof. exact a64_add_offset_ok. Qed.
Print Assumptions C07_selection_add_offset.
(* switch: table address + tag, tag in a register or in a spill slot *)
Theorem C07_selection_switch_dispatch :
  forall (im : image) (s : astate) (sp : Z) (tag : atemp) (l : string) (base off : Z),
    frame_ok s sp -> operand_ok tag -> label_addr im l = Some base -> lget s sp tag = Some off ->
    exists s', run_straight im (a_load_label (AR TEMP) l ++ a_arith Sum (AR TEMP) (AR TEMP) tag) s = MOk s' /\
               step im (BR TEMP) s' = goto_addr im s' (wrap (base + off)) /\
               (forall l, loc_ok l -> l <> AR TEMP -> l <> AR TEMP2 -> lget s' sp l = lget s sp l) /\
               heap s' = heap s /\ out s' = out s.
Proof. exact a64_switch_dispatch_ok. Qed.
Print Assumptions C07_selection_switch_dispatch.

(* explicit substitutions (C11 on AArch64): the code emitted for a move graph in which every target
   has one source - chains, cycles (one value saved in X2), fan-out, spill slots on either side
   (spill-to-spill through X3) - performs the assignment simultaneously: every target ends up with the
   initial value of its source, every other variable temporary is unchanged.  Generic theorem
   (Model/ParMoves.parallel_moves_correct) composed with C07_selection_mov and the save/restore code. *)
Theorem C07_selection_parallel_moves :
  forall (im : image) (am : amap atemp) (code : list acode) (s : astate) (sp : Z),
    frame_ok s sp ->
    indeg1 atemp a64_teqb am -> nodup_targets atemp a64_teqb am -> amap_ok atemp operand_ok am ->
    parallel_moves_code a64_backend am = Ok code ->
    exists s', run_straight im code s = MOk s' /\ frame_ok s' sp /\ heap s' = heap s /\ out s' = out s /\
               (forall a b, edge atemp a64_teqb am a b -> lget s' sp b = lget s sp a) /\
               (forall u, operand_ok u -> (forall a, ~ edge atemp a64_teqb am a u) -> lget s' sp u = lget s sp u).
Proof. exact a64_parallel_moves_ok. Qed.
Print Assumptions C07_selection_parallel_moves.

(* the model's address arithmetic is the crate's (values regenerated from the code), and the
   jump-table stride is the size of a B instruction *)
Theorem C07_constants_agree :
  map stack_offset [0; 1; 2; 3; 4; 5; 6; 7]%N = Generated.Constants.A64C.stack_offset_samples /\
  map (field_offset Fst) [0; 1; 2; 3]%N = Generated.Constants.A64C.field_offset_fst /\
  map (field_offset Snd) [0; 1; 2; 3]%N = Generated.Constants.A64C.field_offset_snd /\
  map jump_length [0; 1; 2; 3; 4; 5]%N = Generated.Constants.A64C.jump_length_samples /\
  (forall l n, jump_length n = Z.of_N n * isize (B l)).
Proof.
  exact (conj a64_stack_offset_samples (conj (proj1 a64_field_offset_samples)
          (conj (proj2 a64_field_offset_samples) (conj a64_jump_length_samples a64_jump_length_is_isize)))).
Qed.
Print Assumptions C07_constants_agree.

(* four of the theorems above as one statement; memory operations: C09, print and prologue / epilogue: C13 *)
Theorem C07_selection_partial :
  forall (im : image) (s : astate) (sp : Z), frame_ok s sp ->
    (forall o t s1 s2 a b v,
        rem_operand_ok t -> rem_operand_ok s1 -> rem_operand_ok s2 ->
        lget s sp s1 = Some a -> lget s sp s2 = Some b -> in64 a -> eval_op o a b = OpVal v ->
        exists s', run_straight im (a_arith o t s1 s2) s = MOk s' /\ lget s' sp t = Some v /\ preserved_rem s s' sp t) /\
    (forall t src, operand_ok t -> operand_ok src ->
        exists s', run_straight im (a_mov t src) s = MOk s' /\ lget s' sp t = lget s sp src /\ preserved s s' sp t) /\
    (forall t v, operand_ok t -> in64 v ->
        exists s', run_straight im (a_load_immediate t v) s = MOk s' /\ lget s' sp t = Some v /\ preserved s s' sp t) /\
    (forall t1 t2 a b, operand_ok t1 -> operand_ok t2 -> lget s sp t1 = Some a -> lget s sp t2 = Some b ->
        exists s', run_straight im (compare t1 t2) s = MOk s' /\ flags s' = Some (cmp_flags a b) /\ flags_preserving s s' sp).
Proof.
  intros im s sp F. repeat split; intros.
  - eapply a64_arith_ok; eauto.
  - eapply a64_mov_ok; eauto.
  - eapply a64_load_immediate_ok; eauto.
  - eapply a64_compare_ok; eauto.
Qed.
Print Assumptions C07_selection_partial.

(* Stated only, neither proved nor refuted: no typing, arity, 64-bit or heap-bound hypothesis.  With them:
   C07_codegen_simulates.  a64_codegen_correct is a second name. *)
Definition C07_codegen_correct_statement : Prop :=
  forall (p : prog) (lc : N) (cs : list acode) (n : nat) (lc' : N) (args : list Z) (fuel : nat) (o : obs),
    a64_compile p lc = Ok (cs, n, lc') ->
    run_linear fuel p args = o -> defined o = true ->
    exists outer inner, fst (run_a64 outer inner cs args) = o.
Definition a64_codegen_correct : Prop := C07_codegen_correct_statement.


(* ======================================================================================== *)
(* Forward simulation of the generic code generator instantiated at AArch64                   *)

(* ======================================================================================== *)
From SCC Require Import Model.LinCheck Sem.A64Wf Proof.A64Exec Proof.SubstGraph Proof.A64Subst Proof.A64Print Proof.A64Entry
     Proof.SimFrag Proof.A64SimRel Proof.A64SimStmt Proof.A64SimProg Proof.A64SimTop Proof.A64SimExample.
Open Scope list_scope.
(* THE STATE RELATION  `rel CL c e s sp`  (Proof/A64SimRel.v) between a configuration of the linear AxCut
   machine - the typing context c the generator threads and the environment e, a list of (name, value)
   by position - and an ISA state s:  SP = sp with sp = 0 (mod 16) (the hardware rule for sp-relative
   accesses) and the whole spill area [sp, sp+2048) inside the stack region, 144 bytes of room below sp for the
   pushes around a print call, X1 (deferred-free list) defined; e and c name the same ids in the same order,
   pairwise distinct; position i is represented (`vrep`) as
     integer z (binding ext i64):  the SECOND temporary of position i (register X(2i+5) for i < 13 - for i = 12
                                   that is internal register 29 = X30, the LINK register - or spill slot 2i-24
                                   from position 13 on; slot 0 is the scratch slot) holds z, and z is a 64-bit
                                   value (`in64 z`: literal synthesis from half-words, SDIV/MSUB and the NZCV
                                   conditions are exact on 64-bit values only);
     closure without captured variables (binding cns T): first temporary = null block pointer, second
                                   temporary = a code address a with `CL a T clauses`.
   Not constrained: first temporaries of integers, X2, X3 (scratch), X0, the flags, spill slot 0, the stack
   below sp.  CL, what a closure's code pointer points to, is a parameter of the statement-level theorems.
   `frame_eq s s' sp`: heap, output and every stack word outside the spill area are unchanged;
   `above_eq`: heap and every stack word at or above sp are unchanged.
   First consequence: the machine's operand lookup and the generator's `variable_temporary` meet. *)
Theorem C07_sim_rel_reads :
  forall (CL : Z -> ident -> list clause -> Prop) (c : ctx) (e : env) (s : astate) (sp : Z) (a : ident) (x : Z),
    rel CL c e s sp -> lookup_int e a = Some x ->
    exists i b t, nth_error c i = Some b /\ idn (bvar b) = idn a /\ tpos a64_backend Snd i = Ok t /\ lget s sp t = Some x /\ in64 x.
Proof. exact rel_lookup. Qed.
Print Assumptions C07_sim_rel_reads.
(* where the positions live: X(2i+4), X(2i+5) up to position 12 (X28/X29 = internal 28, X30 = internal 29),
   spill slots >= 1 after; never SP, XZR, X0..X3, slot 0 *)
Theorem C07_sim_positions :
  forall (n : tnum) (i : nat) (t : atemp),
    tpos a64_backend n i = Ok t ->
    ((i < 13)%nat /\ t = AR (X (2 * N.of_nat i + tnum_n n + 4))) \/ ((13 <= i)%nat /\ exists q, t = AS q /\ slot_ok q /\ q <> 0%N).
Proof. exact atpos_shape. Qed.
Print Assumptions C07_sim_positions.

(* One theorem per statement form, as in C06: ANY context (registers - X30 included - and spill slots in every
   combination), hypotheses = the conditions under which `exec_linear` takes the step. *)
(* Literal: MOVZ / MOVN / MOVK synthesis (C07_load_immediate_every_value) of any 64-bit literal, through X2 into a
   spill slot *)
Theorem C07_sim_literal :
  forall (im : image) (CL : Z -> ident -> list clause -> Prop) (c : ctx) (e : env) (s : astate) (sp : Z) (n : Z) (v : ident) (tv : atemp),
    rel CL c e s sp -> NoDup (ids (c ++ [mkb v Ext I64])) -> in64 n ->
    variable_temporary a64_backend Snd (c ++ [mkb v Ext I64]) (idn v) = Ok tv ->
    exists s', run_straight im (a_load_immediate tv n) s = MOk s' /\
               rel CL (c ++ [mkb v Ext I64]) (e ++ [(v, VInt n)]) s' sp /\ frame_eq s s' sp.
Proof. exact sim_literal. Qed.
Print Assumptions C07_sim_literal.

(* all five operators; the result is the AxCut value (wrap-around for + - *, truncation for / %); rem is
   SDIV + MSUB through X3, with X10 evacuated to slot 0 when target and both operands are spilled
   (C07_selection_rem); the result is again a 64-bit value *)
Theorem C07_sim_op :
  forall (im : image) (CL : Z -> ident -> list clause -> Prop) (c : ctx) (e : env) (s : astate) (sp : Z) (a : ident) (o : binop)
         (b v : ident) (x y z : Z) (tv ta tb : atemp),
    rel CL c e s sp -> NoDup (ids (c ++ [mkb v Ext I64])) ->
    lookup_int e a = Some x -> lookup_int e b = Some y -> eval_op o x y = OpVal z ->
    variable_temporary a64_backend Snd (c ++ [mkb v Ext I64]) (idn v) = Ok tv ->
    variable_temporary a64_backend Snd (c ++ [mkb v Ext I64]) (idn a) = Ok ta ->
    variable_temporary a64_backend Snd (c ++ [mkb v Ext I64]) (idn b) = Ok tb ->
    exists s', run_straight im (a_arith o tv ta tb) s = MOk s' /\
               rel CL (c ++ [mkb v Ext I64]) (e ++ [(v, VInt z)]) s' sp /\ frame_eq s s' sp.
Proof. exact sim_op. Qed.
Print Assumptions C07_sim_op.

(* the undefined cases (divisor 0, min_int / -1, for Div and Rem): the emitted code runs - after the loads of
   spilled operands and, for the fully spilled rem, the evacuation of X10 - into the SDIV, which the ISA model
   reports with the same reason, output unchanged *)
Theorem C07_sim_op_undefined :
  forall (im : image) (CL : Z -> ident -> list clause -> Prop) (c : ctx) (e : env) (s : astate) (sp : Z) (a : ident) (o : binop)
         (b v : ident) (x y : Z) (w : string) (tv ta tb : atemp),
    rel CL c e s sp -> NoDup (ids (c ++ [mkb v Ext I64])) ->
    lookup_int e a = Some x -> lookup_int e b = Some y -> eval_op o x y = OpUndef w ->
    variable_temporary a64_backend Snd (c ++ [mkb v Ext I64]) (idn v) = Ok tv ->
    variable_temporary a64_backend Snd (c ++ [mkb v Ext I64]) (idn a) = Ok ta ->
    variable_temporary a64_backend Snd (c ++ [mkb v Ext I64]) (idn b) = Ok tb ->
    exists s', exec_undef im (a_arith o tv ta tb) s = Some (w, s') /\ out s' = out s.
Proof. exact sim_op_undef. Qed.
Print Assumptions C07_sim_op_undefined.
Theorem C07_sim_op_undefined_observed :
  forall (im : image) (pc : positive) (cs : list acode) (s : astate) (w : string) (s' : astate),
    code_at im pc cs -> exec_undef im cs s = Some (w, s') -> finishes im pc s (finish (out s') (OUndef w)).
Proof. exact exec_undef_finishes. Qed.
Print Assumptions C07_sim_op_undefined_observed.

(* IfC, all six comparison sorts, two-operand form (b = Some _: CMP on registers, spilled operands loaded into
   X2 / X3) and zero form (b = None: CMP #0): the NZCV flags decide the signed comparison
   (C07_flags_decide_signed_comparison), the B.cond resolves its label; control reaches the first instruction of
   the branch the machine takes - the else branch right after the B.cond, the then branch right after the
   label - in a related state *)
Theorem C07_sim_ifc :
  forall (im : image) (CL : Z -> ident -> list clause -> Prop) (c : ctx) (e : env) (s : astate) (sp : Z) (so : ifsort)
         (a : ident) (b : option ident) (x y : Z)
         (types : list tydecl) (thenc elsec : stmt) (lc : N) (code : list acode) (lc' : N) (pc : positive),
    rel CL c e s sp -> lookup_int e a = Some x ->
    match b with Some b => lookup_int e b | None => Some 0 end = Some y ->
    code_statement a64_backend types (IfC so a b thenc elsec) c lc = Ok (code, lc') ->
    code_at im pc code -> labels_at_nh im pc code ->
    exists c1 c2 lc2 c3 s',
      code = c1 ++ c2 ++ [LAB (iflabel lc)] ++ c3 /\
      code_statement a64_backend types elsec c (lc + 1)%N = Ok (c2, lc2) /\
      code_statement a64_backend types thenc c lc2 = Ok (c3, lc') /\
      exec_to im pc s (if eval_cmp so x y then padd pc (List.length c1 + List.length c2 + 1)
                       else padd pc (List.length c1)) s' /\
      rel CL c e s' sp /\ frame_eq s s' sp.
Proof. exact sim_ifc. Qed.
Print Assumptions C07_sim_ifc.

(* Substitute, ANY mix of integer and closure variables, any rearrangement (drop, duplicate, permute): the
   reference-count code (one erase / share per closure variable dropped / duplicated, each skipped because
   the block pointer of a closure without captured variables is null; Proof/A64Subst.a64_emit_rc_ok, i.e.
   C11's erase / share meaning theorems on AArch64) followed by the parallel moves
   (C07_selection_parallel_moves with the frame: a64_parallel_moves_frame_ok; the move graph from
   C11_substitute_graph_edges) leaves the machine's rearranged environment in the temporaries of the new
   context.  `has …` is the condition lin_check imposes. *)
Theorem C07_sim_substitute :
  forall (im : image) (CL : Z -> ident -> list clause -> Prop) (c : ctx) (e : env) (s : astate) (sp : Z)
         (re : list (binding * ident)) (vs : list value) (e' : env)
         (c1 : list acode) (lc lc1 : N) (c2 : list acode) (pc : positive),
    rel CL c e s sp -> NoDup (new_ids re) ->
    (forall q, In q re -> has c (snd q) (bchi (fst q)) (bty (fst q)) = true) ->
    lookups e (map snd re) = Some vs -> bind (map (fun r => bvar (fst r)) re) vs = Some e' ->
    code_weakening_contraction a64_backend (transpose re c) c lc = Ok (c1, lc1) ->
    code_exchange a64_backend (transpose re c) c (map fst re) = Ok c2 ->
    code_at im pc (c1 ++ c2) -> labels_at_nh im pc (c1 ++ c2) ->
    exists s', exec_to im pc s (padd pc (List.length (c1 ++ c2))) s' /\ rel CL (map fst re) e' s' sp /\ frame_eq s s' sp.
Proof. exact sim_substitute. Qed.
Print Assumptions C07_sim_substitute.
(* in an integer context no reference-count code is emitted at all *)
Theorem C07_sim_substitute_int_no_rc :
  forall (c : ctx) (re : list (binding * ident)) (lc : N),
    ctx_int c = true -> NoDup (ids c) ->
    code_weakening_contraction a64_backend (transpose re c) c lc = Ok ([], lc).
Proof. exact cwc_ctx_int. Qed.
Print Assumptions C07_sim_substitute_int_no_rc.

(* PrintI64 on the external-call model (SP = 0 mod 16 at the BL, X0 defined; afterwards X0-X17, the LINK
   REGISTER X30, the flags and the stack below SP are undefined): the printed value is the variable's, every
   live temporary of EVERY context survives - in particular the 13th variable, which lives in X30 (saved around
   the BL) - and SP is restored.  This is Proof/A64Print.a64_print_ok (C13_a64_print_preserves_context)
   composed with the relation. *)
Theorem C07_sim_print :
  forall (im : image) (CL : Z -> ident -> list clause -> Prop) (c : ctx) (e : env) (s : astate) (sp : Z) (nl : bool)
         (v : ident) (z : Z) (tv : atemp),
    rel CL c e s sp -> lookup_int e v = Some z ->
    variable_temporary a64_backend Snd c (idn v) = Ok tv ->
    exists s', run_straight im (a_print nl tv c) s = MOk s' /\
               rel CL c e s' sp /\ out s' = (nl, z) :: out s /\ above_eq s s' sp.
Proof. exact sim_print. Qed.
Print Assumptions C07_sim_print.

(* Call: the branch changes no state; the callee's context (same kinds and types position by position:
   lin_check's sig_match) relabels the same positions *)
Theorem C07_sim_call :
  forall (CL : Z -> ident -> list clause -> Prop) (c : ctx) (e : env) (st : astate) (sp : Z) (c' : ctx) (e' : env),
    rel CL c e st sp -> NoDup (ids c') -> sig_match c c' = true ->
    bind (vars c') (map snd e) = Some e' -> rel CL c' e' st sp.
Proof. exact bind_rel. Qed.
Print Assumptions C07_sim_call.

(* Exit: the result reaches X0 (from a register or a spill slot); control then goes to `cleanup` *)
Theorem C07_sim_exit :
  forall (im : image) (CL : Z -> ident -> list clause -> Prop) (c : ctx) (e : env) (s : astate) (sp : Z) (v : ident) (z : Z) (tv : atemp),
    rel CL c e s sp -> lookup_int e v = Some z -> variable_temporary a64_backend Snd c (idn v) = Ok tv ->
    exists s', run_straight im (a_mov (AR RETURN1) tv) s = MOk s' /\ rget s' RETURN1 = Some z /\
               frame_ok s' sp /\ frame_eq s s' sp.
Proof. exact sim_exit_mov. Qed.
Print Assumptions C07_sim_exit.

(* the prologue and the epilogue (Proof/A64Entry.a64_entry_exit_ok, C13_a64_entry_exit, composed with the entry
   convention of Sem/A64Sem.v): from the entry state of a C call with up to seven integer arguments, `setup`
   stores X19-X29 and the LINK REGISTER X30 below the entry SP, reserves the spill area (sp0 = STACK_TOP - 2144,
   0 mod 16), initialises X1 and leaves argument i in X(2i+5), the register of position i; and from EVERY later
   state with the body's SP in which the words above the spill area are what the prologue stored (`outer_ok`) -
   whatever X19-X30 hold by then, X30 possibly being the 13th variable - `cleanup` reloads them, `RET` finds
   the return marker in X30, and the run ends with OExit of the value in X0: SP and X19-X29 have their entry
   values (final_check) *)
Theorem C07_sim_prologue_epilogue :
  forall (im : image) (args : list Z) (su : list acode),
    setup (List.length args) = Ok su ->
    exists s, run_straight im su (init_state args) = MOk s /\
      frame_ok s sp0 /\ out s = [] /\ (exists f, rget s FREE = Some f) /\
      (forall i, (i < List.length args)%nat -> rget s (X (2 * N.of_nat i + 5)) = Some (nth i args 0)) /\
      forall pcc s2 z, code_at im pcc cleanup ->
        frame_ok s2 sp0 -> outer_ok (stack s) sp0 s2 -> rget s2 RETURN1 = Some z ->
        finishes im pcc s2 (finish (out s2) (OExit z)).
Proof. exact prologue_ok. Qed.
Print Assumptions C07_sim_prologue_epilogue.
(* the two halves under their own names *)
Theorem C07_sim_prologue :
  forall (im : image) (args : list Z) (su : list acode),
    setup (List.length args) = Ok su ->
    exists s, run_straight im su (init_state args) = MOk s /\
      frame_ok s sp0 /\ out s = [] /\ (exists f, rget s FREE = Some f) /\
      (forall i, (i < List.length args)%nat -> rget s (X (2 * N.of_nat i + 5)) = Some (nth i args 0)).
Proof. exact prologue_only. Qed.
Print Assumptions C07_sim_prologue.
Theorem C07_sim_epilogue :
  forall (im : image) (args : list Z) (su : list acode) (s : astate) (pcc : positive) (s2 : astate) (z : Z),
    setup (List.length args) = Ok su -> run_straight im su (init_state args) = MOk s ->
    code_at im pcc cleanup -> frame_ok s2 sp0 -> outer_ok (stack s) sp0 s2 -> rget s2 RETURN1 = Some z ->
    finishes im pcc s2 (finish (out s2) (OExit z)).
Proof. exact epilogue_ok. Qed.
Print Assumptions C07_sim_epilogue.
(* what keeps `outer_ok`: code that stores only into the spill area, and the print sequence *)
Theorem C07_sim_outer_kept :
  forall (st0 : PM.t Z) (s s' : astate) (sp : Z),
    (sp_ok sp -> frame_eq s s' sp -> outer_ok st0 sp s -> outer_ok st0 sp s') /\
    (above_eq s s' sp -> outer_ok st0 sp s -> outer_ok st0 sp s').
Proof. intros st0 s s' sp. split; [apply frame_eq_outer|apply above_eq_outer]. Qed.
Print Assumptions C07_sim_outer_kept.
(* the entry state satisfies the relation for an integer entry context and 64-bit arguments *)
Theorem C07_sim_entry :
  forall (CL : Z -> ident -> list clause -> Prop) (c0 : ctx) (args : list Z) (e0 : env) (s : astate),
    bind (vars c0) (map VInt args) = Some e0 -> NoDup (ids c0) -> ctx_int c0 = true -> (List.length args <= 7)%nat ->
    args_i64 args = true ->
    frame_ok s sp0 -> (exists f, rget s FREE = Some f) ->
    (forall i, (i < List.length args)%nat -> rget s (X (2 * N.of_nat i + 5)) = Some (nth i args 0)) ->
    rel CL c0 e0 s sp0.
Proof. exact entry_rel. Qed.
Print Assumptions C07_sim_entry.

(* composition by induction on the fuel, progress included (see C06_sim_exec); `cleanup` resolves to an epilogue
   that works from every state with the frame intact *)
Theorem C07_sim_exec :
  forall (im : image) (p : prog) (sp : Z) (CL : Z -> ident -> list clause -> Prop) (st0 : PM.t Z),
    (forall d, In d (pdefs p) ->
       exists pcd lcd cd lcd', find_label (labels im) (show_ident (dname d) +++ "_") = Some pcd /\
         PM.find pcd (code im) = Some (LAB (show_ident (dname d) +++ "_")) /\
         code_statement a64_backend (ptypes p) (dbody d) (dctx d) lcd = Ok (cd, lcd') /\
         code_at im (Pos.succ pcd) cd /\ labels_at_nh im (Pos.succ pcd) cd) ->
    (exists pcc, find_label (labels im) "cleanup" = Some pcc /\
       forall s z, frame_ok s sp -> outer_ok st0 sp s -> rget s RETURN1 = Some z -> finishes im pcc s (finish (out s) (OExit z))) ->
    (forall d, In d (pdefs p) -> lin_check (sigs_of p) (dctx d) (dbody d) = true) ->
    (forall d, In d (pdefs p) -> def_int d = true) ->
    (forall d, In d (pdefs p) -> stmt_lits (dbody d) = true) ->
    forall (fuel : nat) (s : stmt) (c : ctx) (e : env) (ot : prints) (st : astate) (pc : positive)
           (code : list acode) (lc lc' : N),
      stmt_int s = true -> stmt_lits s = true -> ctx_int c = true -> lin_check (sigs_of p) c s = true ->
      code_statement a64_backend (ptypes p) s c lc = Ok (code, lc') ->
      code_at im pc code -> labels_at_nh im pc code ->
      rel CL c e st sp -> outer_ok st0 sp st -> out st = ot ->
      snd (exec_linear fuel p e s ot) <> OOutOfFuel -> finishes im pc st (exec_linear fuel p e s ot).
Proof. exact sim_exec. Qed.
Print Assumptions C07_sim_exec.

(* layout of the image of a list that passes asm_wf (C14), as C06_image_layout *)
Theorem C07_image_layout :
  forall cs : list acode,
    asm_wf cs = None -> code_at (mk_image cs) 1%positive cs /\ labels_at_nh (mk_image cs) 1%positive cs.
Proof. exact mk_image_layout. Qed.
Print Assumptions C07_image_layout.

(* PROGRAM LEVEL, integer fragment: C06_codegen_simulates_int on AArch64, with two 64-bit side conditions:
   `lits_i64` (the Rust AST has i64 literals, the model Z) and `args_i64`.  Any number of variables: 13 register
   positions - the last one in the link register - and spill slots beyond. *)
Theorem C07_codegen_simulates_int :
  forall (p : prog) (lc : N) (cs : list acode) (n : nat) (lc' : N) (args : list Z) (fuel : nat) (o : obs),
    int_frag p = true -> plain_names p = true -> lits_i64 p = true -> lin_check_prog p = true ->
    a64_compile p lc = Ok (cs, n, lc') -> asm_wf cs = None ->
    List.length args = n -> args_i64 args = true ->
    run_linear fuel p args = o -> snd o <> OOutOfFuel ->
    exists outer inner, fst (run_a64 outer inner cs args) = o.
Proof. exact a64_codegen_simulates_int. Qed.
Print Assumptions C07_codegen_simulates_int.

(* the arity hypothesis is needed: with a wrong number of arguments the linear machine refuses to start
   (OStuck "entry-args"), which no ISA run reports (witness: eight arguments for a one-parameter entry) *)
Theorem C07_codegen_simulates_int_arity_refuted :
  ~ (forall (p : prog) (lc : N) (cs : list acode) (n : nat) (lc' : N) (args : list Z) (fuel : nat) (o : obs),
      int_frag p = true -> plain_names p = true -> lits_i64 p = true -> lin_check_prog p = true ->
      a64_compile p lc = Ok (cs, n, lc') -> asm_wf cs = None -> args_i64 args = true ->
      run_linear fuel p args = o -> snd o <> OOutOfFuel ->
      exists outer inner, fst (run_a64 outer inner cs args) = o).
Proof. exact ex_arity_needed. Qed.
Print Assumptions C07_codegen_simulates_int_arity_refuted.

(* the `defined o` form (no arity hypothesis needed), `_partial` as C06_codegen_correct_partial *)
Theorem C07_codegen_correct_partial :
  forall (p : prog) (lc : N) (cs : list acode) (n : nat) (lc' : N) (args : list Z) (fuel : nat) (o : obs),
    int_frag p = true -> plain_names p = true -> lits_i64 p = true -> lin_check_prog p = true -> asm_wf cs = None ->
    a64_compile p lc = Ok (cs, n, lc') -> args_i64 args = true ->
    run_linear fuel p args = o -> defined o = true ->
    exists outer inner, fst (run_a64 outer inner cs args) = o.
Proof. exact a64_codegen_correct_int. Qed.
Print Assumptions C07_codegen_correct_partial.

(* the hypotheses are satisfiable by a non-trivial program that crosses the AArch64 specifics (two definitions, a
   literal needing MOVZ+MOVK+MOVK and one needing MOVN+MOVK, a print with exactly 13 live variables - X30 saved
   around BL -, 22 variables = spill slots, a rem with all three temporaries spilled = X10 evacuation, Sum Sub
   Prod Div Rem, both forms of IfC, a three-way explicit substitution with a duplicated source), and the
   conclusion is what evaluation shows: Proof/A64SimExample.v *)
Theorem C07_codegen_simulates_int_example_hypotheses :
  int_frag ex_prog = true /\ plain_names ex_prog = true /\ lits_i64 ex_prog = true /\ lin_check_prog ex_prog = true /\
  (exists n lc', a64_compile ex_prog 0 = Ok (ex_code, n, lc')) /\ asm_wf ex_code = None.
Proof. exact ex_hypotheses. Qed.
Print Assumptions C07_codegen_simulates_int_example_hypotheses.
Theorem C07_codegen_simulates_int_example_shape :
  filter (fun c => match c with MOVK _ _ _ | MOVN _ _ _ | MSUB _ _ _ _ | STR (X 10) _ _ | STR (X 29) _ _ | MOVR _ (X 29) => true
                   | _ => false end) ex_code =
  [MOVK (X 7) 29179 16; MOVK (X 7) 287 32; MOVN (X 9) 721 0; MOVK (X 9) 46697 16;
   STR (X 29) SP 56; MOVR (X 0) (X 29); STR (X 10) SP 2040; MSUB (X 2) (X 3) (X 10) (X 2);
   STR (X 29) SP 56; STR (X 29) SP 56].
Proof. exact ex_code_shape. Qed.
Print Assumptions C07_codegen_simulates_int_example_shape.
Theorem C07_codegen_simulates_int_example_runs :
  run_linear 100 ex_prog [0] = ([(true, 71); (false, 78); (true, 113580245891316); (false, 113580245891316)], OExit 113580245891316) /\
  fst (run_a64 10 1000 ex_code [0]) = ([(true, 71); (false, 78); (true, 113580245891316); (false, 113580245891316)], OExit 113580245891316) /\
  run_linear 100 ex_prog [5] = ([(true, 71); (false, 78); (true, 113580245891316); (false, 113580245891321)], OExit 113580245891321) /\
  fst (run_a64 10 1000 ex_code [5]) = ([(true, 71); (false, 78); (true, 113580245891316); (false, 113580245891321)], OExit 113580245891321) /\
  run_linear 100 ex_prog [200] = ([(true, 71); (false, 78); (true, 113580245891316)], OExit (-12345749)) /\
  fst (run_a64 10 1000 ex_code [200]) = ([(true, 71); (false, 78); (true, 113580245891316)], OExit (-12345749)) /\
  run_linear 100 ex_prog [100] = ([(true, 71); (false, 78); (true, 113580245891316)], OUndef "div0"%string) /\
  fst (run_a64 10 1000 ex_code [100]) = ([(true, 71); (false, 78); (true, 113580245891316)], OUndef "div0"%string).
Proof. exact ex_runs. Qed.
Print Assumptions C07_codegen_simulates_int_example_runs.
(* and the theorem applies to it: every 64-bit argument, every sufficient fuel *)
Theorem C07_codegen_simulates_int_example_applies :
  forall (x : Z) (fuel : nat) (o : obs),
    lit_i64 x = true -> run_linear fuel ex_prog [x] = o -> snd o <> OOutOfFuel ->
    exists outer inner, fst (run_a64 outer inner ex_code [x]) = o.
Proof. exact ex_simulated. Qed.
Print Assumptions C07_codegen_simulates_int_example_applies.


(* ======================================================================================== *)
(* Closures without captured variables: create / invoke (the closure fragment)               *)
(* ======================================================================================== *)
From SCC Require Import Proof.A64SimAddr Proof.A64SimClo Proof.A64SimProgC Proof.A64SimTopC Proof.A64SimExampleC.
Open Scope list_scope.

(* byte addresses in the image of ANY instruction list: every placed instruction has an address >= CODE_BASE,
   consecutive instructions have consecutive addresses (4 bytes per instruction, 0 for labels and directives),
   and the address of an instruction of non-zero size maps back (index_at: what `BR` uses) to exactly that
   instruction - so a branch to the address of a label lands on the first real instruction after it (`land`) *)
Theorem C07_image_addresses : forall cs : list acode, img_ok (mk_image cs).
Proof. exact mk_image_ok. Qed.
Print Assumptions C07_image_addresses.

(* `clo_ok im p a T clauses` - what the second temporary of a closure variable points to (the CL of the
   relation from here on): the clauses are T's destructors in declaration order; `BR` to a (one clause) or to
   a + 4k (clause k through the jump table of `B` instructions: `jump_length k = 4k` is the ISA's stride,
   C07_constants_agree) arrives, with the state unchanged, at an index from which every run continues as from
   the code generated for the body of clause k, which is linearly well-typed in the clause context, in the
   fragment, with 64-bit literals.  The code a Create statement emits after its continuation (label, table,
   clause bodies) establishes it for the address `ADR` loads: *)
Theorem C07_closure_layout :
  forall (im : image) (p : prog), img_ok im ->
    (forall pc a, PM.find pc (addr_of im) = Some a -> a < 4611686018427387904) ->
  forall (pc : positive) (P : list acode) (fresh : string) (tn : ident) (cls : list clause) (c5 : list acode) (lc3 lc5 : N),
    code_at im pc (P ++ ([LAB fresh] ++ table_or_nil cls fresh) ++ c5) ->
    labels_at_nh im pc (P ++ ([LAB fresh] ++ table_or_nil cls fresh) ++ c5) ->
    hash_name fresh = false ->
    clauses_code (ptypes p) [] fresh cls lc3 = Ok (c5, lc5) ->
    cls <> [] -> cls_ok (sigs_of p) (Decl tn) cls = true ->
    (forall c, In c cls -> clause_static p c) ->
    exists a, label_addr im fresh = Some a /\ clo_ok im p a tn cls.
Proof. exact create_layout. Qed.
Print Assumptions C07_closure_layout.

(* Create of a closure without captured variables, ANY context: null block pointer (MOVZ #0) into the first
   temporary of the new position, the address of the closure's label (ADR; through X2 into a spill slot) into the
   second; the machine's new environment entry VClo is represented; control continues with the code of the
   continuation statement *)
Theorem C07_sim_create :
  forall (im : image) (p : prog), img_ok im ->
    (forall pc a, PM.find pc (addr_of im) = Some a -> a < 4611686018427387904) ->
  forall (c : ctx) (e : env) (s : astate) (sp : Z) (v tn : ident) (cls : list clause) (next : stmt) (lc : N)
         (code : list acode) (lc' : N) (pc : positive),
    rel (clo_ok im p) c e s sp -> NoDup (ids (c ++ [mkb v Cns (Decl tn)])) ->
    code_statement a64_backend (ptypes p) (Create v (Decl tn) (Some []) cls next) c lc = Ok (code, lc') ->
    code_at im pc code -> labels_at_nh im pc code ->
    hash_name (type_label (Decl tn) (lc + 1)%N) = false ->
    cls <> [] -> cls_ok (sigs_of p) (Decl tn) cls = true ->
    (forall cl, In cl cls -> clause_static p cl) ->
    exists c12 c3 lc3 rest s',
      code = c12 ++ c3 ++ rest /\
      code_statement a64_backend (ptypes p) next (c ++ [mkb v Cns (Decl tn)]) (lc + 1)%N = Ok (c3, lc3) /\
      run_straight im c12 s = MOk s' /\
      rel (clo_ok im p) (c ++ [mkb v Cns (Decl tn)]) (e ++ [(v, VClo tn cls [])]) s' sp /\ frame_eq s s' sp.
Proof. exact sim_create. Qed.
Print Assumptions C07_sim_create.

(* Invoke, ANY context: whether the type has one destructor (`BR` through the temporary) or several
   (`ADD tmp, tmp, #4k; BR tmp`; the sum does not wrap because table addresses are below 2^62), with the
   closure in a register or in a spill slot (then through X2), control arrives at index i, from which every run
   continues as from the body of the clause the machine selects, in a state related to the machine's new
   environment (the arguments relabelled by the clause context) *)
Theorem C07_sim_invoke :
  forall (im : image) (p : prog)
         (c : ctx) (e : env) (s : astate) (sp : Z) (v tag : ident) (t : ty) (args : ctx) (code : list acode) (lc lc' : N)
         (pc : positive) (e0 : env) (x tn : ident) (cls : list clause) (ce : env) (cl : clause) (e1 : env),
    rel (clo_ok im p) c e s sp ->
    AxSem.split_last 1 e = Some (e0, [(x, VClo tn cls ce)]) -> N.eqb (idn x) (idn v) = true ->
    find_clause cls tag = Some cl -> bind (vars (cl_ctx cl)) (map snd e0) = Some e1 ->
    lin_check (sigs_of p) c (Invoke v tag t args) = true ->
    code_statement a64_backend (ptypes p) (Invoke v tag t args) c lc = Ok (code, lc') -> code_at im pc code ->
    exists i pcb lcb cb lcb' s',
      exec_to im pc s i s' /\ (forall o, finishes im pcb s' o -> finishes im i s' o) /\
      code_statement a64_backend (ptypes p) (cl_body cl) (cl_ctx cl) lcb = Ok (cb, lcb') /\ code_at im pcb cb /\ labels_at_nh im pcb cb /\
      clause_static p cl /\
      rel (clo_ok im p) (cl_ctx cl) (e1 ++ ce) s' sp /\ frame_eq s s' sp.
Proof. exact sim_invoke. Qed.
Print Assumptions C07_sim_invoke.

(* composition for the closure fragment (stmt_cf: the integer statements plus Create with an empty
   environment and at least one clause, and Invoke; variables `ext i64` or `cns T`) *)
Theorem C07_sim_exec_cf :
  forall (im : image) (p : prog) (sp : Z) (st0 : PM.t Z),
    img_ok im ->
    (forall pc a, PM.find pc (addr_of im) = Some a -> a < 4611686018427387904) ->
    (forall d, In d (ptypes p) -> hash_name (label_of_type_name (show_ident (tname d))) = false) ->
    (forall d, In d (pdefs p) ->
       exists pcd lcd cd lcd', find_label (labels im) (show_ident (dname d) +++ "_") = Some pcd /\
         PM.find pcd (code im) = Some (LAB (show_ident (dname d) +++ "_")) /\
         code_statement a64_backend (ptypes p) (dbody d) (dctx d) lcd = Ok (cd, lcd') /\
         code_at im (Pos.succ pcd) cd /\ labels_at_nh im (Pos.succ pcd) cd) ->
    (exists pcc, find_label (labels im) "cleanup" = Some pcc /\
       forall s z, frame_ok s sp -> outer_ok st0 sp s -> rget s RETURN1 = Some z -> finishes im pcc s (finish (out s) (OExit z))) ->
    (forall d, In d (pdefs p) -> lin_check (sigs_of p) (dctx d) (dbody d) = true) ->
    (forall d, In d (pdefs p) -> stmt_cf (dbody d) = true) ->
    (forall d, In d (pdefs p) -> stmt_lits (dbody d) = true) ->
    forall (fuel : nat) (s : stmt) (c : ctx) (e : env) (ot : prints) (st : astate) (pc : positive)
           (code : list acode) (lc lc' : N),
      stmt_cf s = true -> stmt_lits s = true -> lin_check (sigs_of p) c s = true ->
      code_statement a64_backend (ptypes p) s c lc = Ok (code, lc') ->
      code_at im pc code -> labels_at_nh im pc code ->
      rel (clo_ok im p) c e st sp -> outer_ok st0 sp st -> out st = ot ->
      snd (exec_linear fuel p e s ot) <> OOutOfFuel -> finishes im pc st (exec_linear fuel p e s ot).
Proof. exact sim_exec_cf. Qed.
Print Assumptions C07_sim_exec_cf.

(* PROGRAM LEVEL, closure fragment: C06_codegen_simulates_cf on AArch64, with lits_i64 and args_i64 *)
Theorem C07_codegen_simulates_cf :
  forall (p : prog) (lc : N) (cs : list acode) (n : nat) (lc' : N) (args : list Z) (fuel : nat) (o : obs),
    cf_frag p = true -> entry_int p = true -> plain_names p = true -> plain_types p = true -> lits_i64 p = true ->
    lin_check_prog p = true ->
    a64_compile p lc = Ok (cs, n, lc') -> asm_wf cs = None -> code_small cs = true ->
    List.length args = n -> args_i64 args = true ->
    run_linear fuel p args = o -> snd o <> OOutOfFuel ->
    exists outer inner, fst (run_a64 outer inner cs args) = o.
Proof. exact a64_codegen_simulates_cf. Qed.
Print Assumptions C07_codegen_simulates_cf.

(* non-vacuity: a program of the pipeline's shape (main creates the return continuation and calls the
   tail-recursive f, which finally invokes it), a closure of a two-destructor type entered through its jump
   table from a register, and - behind 13 integers - closures whose code pointer lives in a spill slot (two
   destructors: LDR, ADD, BR through X2; one destructor: LDR, BR); closures are passed along, dropped (erase of a
   null pointer) and kept by substitutions *)
Theorem C07_codegen_simulates_cf_example_hypotheses :
  cf_frag exc_prog = true /\ entry_int exc_prog = true /\ plain_names exc_prog = true /\ plain_types exc_prog = true /\
  lits_i64 exc_prog = true /\ lin_check_prog exc_prog = true /\
  (exists n lc', a64_compile exc_prog 0 = Ok (exc_code, n, lc')) /\ asm_wf exc_code = None /\ code_small exc_code = true.
Proof. exact exc_hypotheses. Qed.
Print Assumptions C07_codegen_simulates_cf_example_hypotheses.
Theorem C07_codegen_simulates_cf_example_runs :
  run_linear 100 exc_prog [4] = ([(false, 4); (false, 7); (false, 9); (false, 10); (true, 10)], OExit 10) /\
  fst (run_a64 10 2000 exc_code [4]) = ([(false, 4); (false, 7); (false, 9); (false, 10); (true, 10)], OExit 10) /\
  run_linear 100 exc_prog [0] = ([], OExit 0) /\
  fst (run_a64 10 2000 exc_code [0]) = ([], OExit 0) /\
  run_linear 100 exc_prog [-3] = ([(false, -549)], OExit (-549)) /\
  fst (run_a64 10 2000 exc_code [-3]) = ([(false, -549)], OExit (-549)) /\
  run_linear 100 exc_prog [-30] = ([], OExit (-213)) /\
  fst (run_a64 10 2000 exc_code [-30]) = ([], OExit (-213)).
Proof. exact exc_runs. Qed.
Print Assumptions C07_codegen_simulates_cf_example_runs.

(* ======================================================================================== *)
(* HEAP statements on AArch64: Let / Switch / Create with captured variables / Invoke /       *)
(* Substitute on objects - and the program-level theorem for ALL statement forms              *)
(* ======================================================================================== *)
(* Same structure as the heap part of C06 (docs/C06.md, section "Heap statements").  Used from there, not restated:
   the abstract allocator and the heap-instrumented machine (Sem/AxHeap.v, C09), the agreement `heq` up to zero padding,
   the bridge from the allocator invariant InvA (`alloc_object_bridge`, `hdr_bounds_x`, `load_ptrs`/`obj_fields_words`,
   Proof/X86HBridge.v, X86HFrame.v, X86HeapCongr.v - these files mention no x86-64 instruction despite their names),
   the invariant `hinv` of a run (X86HSimProgA.v), `ann_check` (X86HAnn.v) and the decision procedure `fits_run`
   (X86HSimExample.v).  `heap_fits` is defined in Proof/A64HSimTop.v with the body of the x86-64 definition
   (A64HSimTop.heap_fits_x86: the two are equivalent).  The representation of values in heap words is Proof/HRep.v:
   `xrep` of Proof/X86HSimRel.v with the jump-table stride (4 here, 5 on x86-64) and what is recorded of integers
   (`in64` here, nothing on x86-64) as parameters; the RISC-V chain family Proof/RVK*.v uses it too.  AArch64-specific: the refinement of the allocator code (C09_a64_*,
   Proof/A64Mem*.v), the relation `hrel` (Proof/A64HSimRel.v: SP = sp = 0 mod 16, HEAP = X0, FREE = X1, positions 0-12 in
   X(2i+4)/X(2i+5), spill slots after), the statement lemmas (Proof/A64HSim*.v) and the layout of clause code
   (Proof/A64HLayout.v: an indirect branch lands on the first REAL instruction at the target address).
   `hclo_ok im p a tn cls cenv`: the data word a of a closure is the address of its label; for clause k the landing index
   of a (+ 4k for a table entry) continues every run of the clause's code (load of the captured environment + body,
   compiled in cl_ctx ++ cenv, lin_check'ed, ann_check'ed, 64-bit literals). *)
From SCC Require Import Model.Linearize Model.LinCheck Sem.AxHeap Proof.A64Mem Proof.HRep Proof.A64HSimRel Proof.A64HSimStore Proof.A64HSimLoad Proof.A64HSimSubst
     Proof.A64HLayout Proof.X86HAnn Proof.X86HAnnLin Proof.A64HBridge Proof.A64HSimHeapB Proof.A64HSimHeapC Proof.A64HSimProgA Proof.A64HSimProg
     Proof.A64HSimTop Proof.A64HSimCor Proof.A64HSimExample Proof.AxHeapExample.
From SCC Require Model.Heap Proof.HeapRep Proof.AxHeapTyping Proof.X86HSimExample.
Import Sem.AxHeap.
Open Scope Z_scope.
Open Scope list_scope.

(* reading an integer operand under the heap-aware relation `hrel` (Proof/A64HSimRel.v): its second temporary holds the 64-bit value *)
Theorem C07_heap_rel_reads :
  forall (types : list tydecl) (CLO : Z -> ident -> list clause -> ctx -> Prop) (c : ctx) (he : henv) 
      (hs : Heap.st) (s : astate) (sp : Z) (a : ident) (x : Z),
    hrel types CLO c he hs s sp ->
    lookup_int (erase_env he) a = Some x ->
    exists (i : nat) (b : binding) (t : atemp),
      nth_error c i = Some b /\
      idn (bvar b) = idn a /\ SubstGraph.tpos a64_backend Snd i = Ok t /\ lget s sp t = Some x /\ A64Imm.in64 x.
Proof. exact hrel_lookup. Qed.
Print Assumptions C07_heap_rel_reads.

(* BRIDGE, the AArch64-only part (the rest - `alloc_object_pre`, acquired blocks, header bounds, `xrep_frame` - is shared with C06, theorems C06_heap_bridge_...): along the chain of allocations of one object the header of the reserved block is a 64-bit value *)
Theorem C07_heap_bridge_hdr64 :
  forall (fields : list Z) (a s : Heap.st) (R R0 hl fl cl : list Z),
    InvA HB s R hl fl cl ->
    heq a s ->
    P3 s ->
    Permutation.Permutation R (Heap.nz fields ++ R0) ->
    fields <> nil ->
    Z.of_nat (Datatypes.length R) < 1048576 ->
    Heap.frontier (snd (Heap.alloc_object fields s)) + 64 <= LIMIT -> A64MemStoreChain.alloc_object_hdr64 fields a.
Proof. exact alloc_object_hdr64_bridge. Qed.
Print Assumptions C07_heap_bridge_hdr64.

(* the AArch64 counterpart of x86-64's `back_ok`: in an image whose every placed instruction is followed (through labels only) by a real instruction, the address of ANY placed index has a landing index, and every run from the index continues from it *)
Theorem C07_image_forward_landing :
  forall im : image,
    img_ok im ->
    fwd_ok im ->
    forall (pc : PM.key) (c : acode) (a : Z),
    PM.find pc (code im) = Some c ->
    PM.find pc (addr_of im) = Some a ->
    exists i : positive,
      PM.find (key a) (index_at im) = Some i /\ (forall (s : astate) (o : obs), finishes im pc s o -> finishes im i s o).
Proof. exact fwd_land. Qed.
Print Assumptions C07_image_forward_landing.

(* ... which holds for every compiled routine: it ends with the RET of `cleanup` *)
Theorem C07_image_forward :
  forall (is : list acode) (n : nat) (cs : list acode), into_aarch64_routine is n = Ok cs -> fwd_ok (mk_image cs).
Proof. exact routine_image_fwd. Qed.
Print Assumptions C07_image_forward.

(* Let: a_store (any number of fields, block chains, new block pointers in registers or spill slots) + the tag word 4k *)
Theorem C07_sim_let :
  forall (im : image) (p : prog),
    (forall d : tydecl, In d (ptypes p) -> Z.of_nat (Datatypes.length (txtors d)) < 2305843009213693952) ->
    forall (c : ctx) (he : henv) (hs : Heap.st) (s : astate) (sp : Z) (v : ident) (t : ty) (tag : ident) 
      (args : ctx) (next : stmt) (lc : N) (code : list acode) (lc' : N) (pc : positive) (he0 fs : list hentry) 
      (tn : ident) (hl fl cl : list Z),
    hrel (ptypes p) (hclo_ok im p) c he hs s sp ->
    lin_check (sigs_of p) c (Let v t tag args next) = true ->
    acs (ptypes p) (Let v t tag args next) c lc = Ok (code, lc') ->
    code_at im pc code ->
    labels_at_nh im pc code ->
    ty_name t = Some tn ->
    AxSem.split_last (Datatypes.length args) he = Some (he0, fs) ->
    InvA HB hs (roots he) hl fl cl ->
    P03 hs ->
    (forall en : hentry, In en he -> chi_of (h_val en) = Ext -> h_ptr en = 0) ->
    let res0 := Heap.alloc_object (map store_ptr fs) hs in
    Heap.frontier (snd res0) + 64 <= LIMIT ->
    Heap.heap (snd res0) <> 0 ->
    Heap.free (snd res0) <> 0 ->
    let c0 := firstn (Datatypes.length c - Datatypes.length args) c in
    exists (c12 c3 : list acode) (lc1 : N) (s' : astate),
      code = c12 ++ c3 /\
      acs (ptypes p) next (c0 ++ {| bvar := v; bchi := Prd; bty := t |} :: nil) lc1 = Ok (c3, lc') /\
      lin_check (sigs_of p) (c0 ++ {| bvar := v; bchi := Prd; bty := t |} :: nil) next = true /\
      exec_to im pc s (padd pc (Datatypes.length c12)) s' /\
      hrel (ptypes p) (hclo_ok im p) (c0 ++ {| bvar := v; bchi := Prd; bty := t |} :: nil)
        (he0 ++ (v, VObj tn tag (map h_val fs), fst res0) :: nil) (snd res0) s' sp /\ hframe_eq s s' sp.
Proof. exact hsim_let. Qed.
Print Assumptions C07_sim_let.

(* Switch: fall-through (one clause) or ADR / ADD / BR to table entry k, then a_load of the fields (Release or Share by the header test) *)
Theorem C07_sim_switch :
  forall (im : image) (p : prog),
    img_ok im ->
    (forall (pc : PM.key) (a : Z), PM.find pc (addr_of im) = Some a -> a < 4611686018427387904) ->
    forall (c : ctx) (he : henv) (hs : Heap.st) (s : astate) (sp : Z) (v : ident) (t : ty) (cls : list (ident * ctx * stmt))
      (lc : N) (code : list acode) (lc' : N) (pc : positive) (he0 : list hentry) (x tn tag : ident) 
      (fs : list value) (q : Z) (cl : clause) (e1 : env) (lk : HeapRep.lkmap) (hl fl cl0 : list Z),
    hrel (ptypes p) (hclo_ok im p) c he hs s sp ->
    lin_check (sigs_of p) c (Switch v t cls) = true ->
    acs (ptypes p) (Switch v t cls) c lc = Ok (code, lc') ->
    code_at im pc code ->
    labels_at_nh im pc code ->
    (forall lcx : N, X86Wf.is_hash_label (type_label t lcx) = false) ->
    AxSem.split_last 1 he = Some (he0, (x, VObj tn tag fs, q) :: nil) ->
    find_clause cls tag = Some cl ->
    bind (vars (cl_ctx cl)) fs = Some e1 ->
    InvA HB hs (roots he) hl fl cl0 ->
    P03 hs ->
    Heap.frontier hs <= LIMIT ->
    (fs <> nil -> HeapRep.rep_flds lk (Heap.m hs) fs q) ->
    let c0 := removelast c in
    exists (pcb : positive) (lcb : N) (cb : list acode) (lcb' : N) (s' : astate),
      exec_to im pc s pcb s' /\
      acs (ptypes p) (cl_body cl) (c0 ++ cl_ctx cl) lcb = Ok (cb, lcb') /\
      code_at im pcb cb /\
      labels_at_nh im pcb cb /\
      lin_check (sigs_of p) (c0 ++ cl_ctx cl) (cl_body cl) = true /\
      hrel (ptypes p) (hclo_ok im p) (c0 ++ cl_ctx cl) (he0 ++ attach e1 (load_ptrs hs (Datatypes.length (cl_ctx cl)) q))
        (hrun (load_ops (Datatypes.length (cl_ctx cl)) q) hs) s' sp /\ hframe_eq s s' sp.
Proof. exact hsim_switch. Qed.
Print Assumptions C07_sim_switch.

(* Create with captured variables: a_store of the captured environment + ADR of the clause code; establishes `hclo_ok` for the new closure *)
Theorem C07_sim_create_captured :
  forall (im : image) (p : prog),
    img_ok im ->
    fwd_ok im ->
    (forall (pc : PM.key) (a : Z), PM.find pc (addr_of im) = Some a -> a < 4611686018427387904) ->
    forall (c : ctx) (he : henv) (hs : Heap.st) (s : astate) (sp : Z) (v : ident) (t : ty) (env0 : ctx)
      (cls : list (ident * ctx * stmt)) (next : stmt) (lc : N) (code : list acode) (lc' : N) (pc : positive)
      (he0 cap : list hentry) (tn : ident) (ce : env) (hl fl cl : list Z),
    hrel (ptypes p) (hclo_ok im p) c he hs s sp ->
    lin_check (sigs_of p) c (Create v t (Some env0) cls next) = true ->
    skipn (Datatypes.length c - Datatypes.length env0) c = env0 ->
    ann_clauses_cr env0 cls = true ->
    clauses_lits cls = true ->
    acs (ptypes p) (Create v t (Some env0) cls next) c lc = Ok (code, lc') ->
    code_at im pc code ->
    labels_at_nh im pc code ->
    (forall lcx : N, X86Wf.is_hash_label (type_label t lcx) = false) ->
    ty_name t = Some tn ->
    AxSem.split_last (Datatypes.length env0) he = Some (he0, cap) ->
    bind (vars env0) (map h_val cap) = Some ce ->
    InvA HB hs (roots he) hl fl cl ->
    P03 hs ->
    (forall en : hentry, In en he -> chi_of (h_val en) = Ext -> h_ptr en = 0) ->
    let res0 := Heap.alloc_object (map store_ptr cap) hs in
    Heap.frontier (snd res0) + 64 <= LIMIT ->
    Heap.heap (snd res0) <> 0 ->
    Heap.free (snd res0) <> 0 ->
    let c0 := firstn (Datatypes.length c - Datatypes.length env0) c in
    exists (c12 c3 : list acode) (lc2 lc3 : N) (rest' : list acode) (s' : astate),
      code = c12 ++ c3 ++ rest' /\
      acs (ptypes p) next (c0 ++ {| bvar := v; bchi := Cns; bty := t |} :: nil) lc2 = Ok (c3, lc3) /\
      lin_check (sigs_of p) (c0 ++ {| bvar := v; bchi := Cns; bty := t |} :: nil) next = true /\
      exec_to im pc s (padd pc (Datatypes.length c12)) s' /\
      hrel (ptypes p) (hclo_ok im p) (c0 ++ {| bvar := v; bchi := Cns; bty := t |} :: nil)
        (he0 ++ (v, VClo tn cls ce, fst res0) :: nil) (snd res0) s' sp /\ hframe_eq s s' sp.
Proof. exact hsim_create. Qed.
Print Assumptions C07_sim_create_captured.

(* Invoke: BR / ADD #4k; BR to the closure (through X2 when spilled); the indirect branch lands on the first real instruction at the address, so the continuation is in `finishes`-form; then a_load of the captured environment *)
Theorem C07_sim_invoke_captured :
  forall (im : image) (p : prog) (c : ctx) (he : henv) (hs : Heap.st) (s : astate) (sp : Z) (v tag : ident) 
      (t : ty) (args : ctx) (cd : list acode) (lc lc' : N) (pc : positive) (he0 : list hentry) (x tn : ident)
      (cls : list clause) (ce : list (ident * value)) (q : Z) (cl : clause) (e1 : env) (lk : HeapRep.lkmap)
      (hl fl cl0 : list Z),
    hrel (ptypes p) (hclo_ok im p) c he hs s sp ->
    AxSem.split_last 1 he = Some (he0, (x, VClo tn cls ce, q) :: nil) ->
    find_clause cls tag = Some cl ->
    bind (vars (cl_ctx cl)) (map snd (erase_env he0)) = Some e1 ->
    lin_check (sigs_of p) c (Invoke v tag t args) = true ->
    acs (ptypes p) (Invoke v tag t args) c lc = Ok (cd, lc') ->
    code_at im pc cd ->
    InvA HB hs (roots he) hl fl cl0 ->
    P03 hs ->
    Heap.frontier hs <= LIMIT ->
    (ce <> nil -> HeapRep.rep_flds lk (Heap.m hs) (map snd ce) q) ->
    exists (pcb : positive) (lcb : N) (cb : list acode) (lcb' : N) (s' : astate),
      (forall o : obs, finishes im pcb s' o -> finishes im pc s o) /\
      acs (ptypes p) (cl_body cl) (cl_ctx cl ++ ctx_of_env ce) lcb = Ok (cb, lcb') /\
      code_at im pcb cb /\
      labels_at_nh im pcb cb /\
      lin_check (sigs_of p) (cl_ctx cl ++ ctx_of_env ce) (cl_body cl) = true /\
      ann_check (cl_ctx cl ++ ctx_of_env ce) (cl_body cl) = true /\
      stmt_lits (cl_body cl) = true /\
      hrel (ptypes p) (hclo_ok im p) (cl_ctx cl ++ ctx_of_env ce)
        (attach e1 (ptrs he0) ++ attach ce (load_ptrs hs (Datatypes.length ce) q))
        (hrun (load_ops (Datatypes.length ce) q) hs) s' sp /\ hframe_eq s s' sp.
Proof. exact hsim_invoke. Qed.
Print Assumptions C07_sim_invoke_captured.

(* Substitute with objects: erase / share in the order of the instrumented machine's `subst_ops`, then the parallel moves *)
Theorem C07_sim_substitute_objects :
  forall (im : image) (types : list tydecl) (CLO : Z -> ident -> list clause -> ctx -> Prop) (c : ctx) 
      (he : henv) (hs : Heap.st) (s : astate) (sp : Z) (re : list (binding * ident)) (he' : henv) 
      (c1 : list acode) (lc lc1 : N) (c2 : list acode) (pc : positive) (hl fl cl : list Z),
    hrel types CLO c he hs s sp ->
    NoDup (SubstGraph.new_ids re) ->
    (forall q : binding * ident, In q re -> has c (snd q) (bchi (fst q)) (bty (fst q)) = true) ->
    hsubst he re = Some he' ->
    ctx_of he = c ->
    InvA HB hs (roots he) hl fl cl ->
    P03 hs ->
    Heap.frontier hs <= LIMIT ->
    code_weakening_contraction a64_backend (transpose re c) c lc = Ok (c1, lc1) ->
    code_exchange a64_backend (transpose re c) c (map fst re) = Ok c2 ->
    code_at im pc (c1 ++ c2) ->
    labels_at_nh im pc (c1 ++ c2) ->
    exists s' : astate,
      exec_to im pc s (padd pc (Datatypes.length (c1 ++ c2))) s' /\
      hrel types CLO (map fst re) he' (hrun (subst_ops he re) hs) s' sp /\ hframe_eq s s' sp.
Proof. exact hsim_substitute. Qed.
Print Assumptions C07_sim_substitute_objects.

(* the induction over the fuel of the instrumented machine, all eleven statement forms, progress included *)
Theorem C07_sim_exec_heap :
  forall (im : image) (p : prog) (sp : Z) (st0 : PM.t Z),
    img_ok im ->
    fwd_ok im ->
    (forall (pc : PM.key) (a : Z), PM.find pc (addr_of im) = Some a -> a < 4611686018427387904) ->
    (forall d : tydecl, In d (ptypes p) -> Z.of_nat (Datatypes.length (txtors d)) < 2305843009213693952) ->
    (forall d : tydecl, In d (ptypes p) -> X86Wf.is_hash_label (label_of_type_name (show_ident (tname d))) = false) ->
    (forall d : def,
     In d (pdefs p) ->
     exists (pcd : positive) (lcd : N) (cd : list acode) (lcd' : N),
       find_label (labels im) (show_ident (dname d) +++ "_") = Some pcd /\
       PM.find pcd (code im) = Some (LAB (show_ident (dname d) +++ "_")) /\
       acs (ptypes p) (dbody d) (dctx d) lcd = Ok (cd, lcd') /\
       code_at im (Pos.succ pcd) cd /\ labels_at_nh im (Pos.succ pcd) cd) ->
    (exists pcc : positive,
       find_label (labels im) "cleanup" = Some pcc /\
       (forall (s : astate) (z : Z),
        frame_ok s sp -> outer_ok st0 sp s -> rget s RETURN1 = Some z -> finishes im pcc s (finish (out s) (OExit z)))) ->
    lin_check_prog p = true ->
    ann_check_prog p = true ->
    (forall d : def, In d (pdefs p) -> stmt_lits (dbody d) = true) ->
    forall (fuel : nat) (s : stmt) (c : ctx) (he : henv) (hs : Heap.st) (ot : prints) (tr : list Heap.op) 
      (st : astate) (pc : positive) (code : list acode) (lc lc' : N),
    lin_check (sigs_of p) c s = true ->
    ann_check c s = true ->
    stmt_lits s = true ->
    acs (ptypes p) s c lc = Ok (code, lc') ->
    code_at im pc code ->
    labels_at_nh im pc code ->
    hrel (ptypes p) (hclo_ok im p) c he hs st sp ->
    map h_id he = vars c ->
    hinv p he hs s ->
    outer_ok st0 sp st ->
    out st = ot ->
    not_oof (fst (fst (hexec fuel p {| hc_env := he; hc_heap := hs; hc_stmt := s |} ot tr))) ->
    finishes im pc st (fst (fst (hexec fuel p {| hc_env := he; hc_heap := hs; hc_stmt := s |} ot tr))).
Proof. exact hsim_exec. Qed.
Print Assumptions C07_sim_exec_heap.

(* PROGRAM LEVEL.  Hypotheses as for x86-64 (C06_codegen_simulates_partial): lin_check_prog, ann_check_prog (a theorem for
   outputs of the linearizer, below), entry_ext, plain names / types, asm_wf (the C14 check of the REAL output), code_small,
   arity, heap_fits (necessary: the generated code never compares the frontier with the driver's buffer, docs/C06.md);
   plus the AArch64 64-bit side conditions: lits_i64, args_i64 as for the fragments, and tags_i64 - every type has fewer
   than 2^61 constructors / destructors (the tag word 4k of a Let is synthesised by MOVZ/MOVK, exact on 64-bit values; the
   Rust code computes `4 * k` in i64).  `_partial`: asm_wf and code_small of the emitted code are hypotheses here
   (C07_codegen_simulates has guards on the program in their place); ann_check_prog and heap_fits, which stay there
   too, are not C14 checks of the output. *)
Theorem C07_codegen_simulates_partial :
  forall (p : prog) (lc : N) (cs : list acode) (n : nat) (lc' : N) (args : list Z) (fuel : nat) (o : obs),
    lin_check_prog p = true -> ann_check_prog p = true -> AxHeapTyping.entry_ext p = true ->
    plain_names p = true -> plain_types p = true -> lits_i64 p = true -> tags_i64 p = true ->
    a64_compile p lc = Ok (cs, n, lc') -> asm_wf cs = None -> code_small cs = true ->
    List.length args = n -> args_i64 args = true -> heap_fits p args ->
    run_linear fuel p args = o -> snd o <> OOutOfFuel ->
    exists outer inner, fst (run_a64 outer inner cs args) = o.
Proof. exact a64_codegen_simulates. Qed.
Print Assumptions C07_codegen_simulates_partial.

(* C07_codegen_correct_statement for the compiler's own programs: the linearizer's output is lin_check'ed (C05) and
   ann_check'ed (C06_linearize_ann) *)
Theorem C07_codegen_correct_linearized_partial :
  forall (a : prog) (lc : N) (cs : list acode) (n : nat) (lc' : N) (args : list Z) (fuel : nat) (o : obs),
    prog_ok a = true ->
    AxHeapTyping.entry_ext (linearize a) = true -> plain_names (linearize a) = true -> plain_types (linearize a) = true ->
    lits_i64 (linearize a) = true -> tags_i64 (linearize a) = true ->
    a64_compile (linearize a) lc = Ok (cs, n, lc') -> asm_wf cs = None -> code_small cs = true ->
    args_i64 args = true -> heap_fits (linearize a) args ->
    run_linear fuel (linearize a) args = o -> defined o = true ->
    exists outer inner, fst (run_a64 outer inner cs args) = o.
Proof. exact a64_codegen_correct_linearized. Qed.
Print Assumptions C07_codegen_correct_linearized_partial.

(* heap_fits is the bound of C06 (the ISA models place the heap identically) and is decided by running the instrumented
   machine *)
Theorem C07_heap_fits_decided :
  forall (fuel : nat) (p : prog) (args : list Z), X86HSimExample.fits_run fuel p args = true -> heap_fits p args.
Proof. exact fits_run_sound. Qed.
Print Assumptions C07_heap_fits_decided.

(* non-vacuity: the example program of Proof/AxHeapExample.v (lists by Let / Switch, a five-field record in two chained
   blocks, shared and dropped objects, a closure capturing an integer, two definitions): all hypotheses by evaluation, the
   theorem applied, both machines evaluated *)
Theorem C07_codegen_simulates_heap_example_hypotheses :
  lin_check_prog hx_lin = true /\ ann_check_prog hx_lin = true /\ AxHeapTyping.entry_ext hx_lin = true /\
  plain_names hx_lin = true /\ plain_types hx_lin = true /\ lits_i64 hx_lin = true /\ tags_i64 hx_lin = true /\
  (exists lc', a64_compile hx_lin 0 = Ok (hxa_code, 2%nat, lc')) /\ asm_wf hxa_code = None /\ code_small hxa_code = true /\
  args_i64 (3 :: 100 :: nil) = true /\ X86HSimExample.fits_run 2000 hx_lin (3 :: 100 :: nil) = true.
Proof. exact hxa_hypotheses. Qed.
Print Assumptions C07_codegen_simulates_heap_example_hypotheses.
Theorem C07_codegen_simulates_heap_example_applied :
  exists outer inner, fst (run_a64 outer inner hxa_code (3 :: 100 :: nil)) = run_linear 2000 hx_lin (3 :: 100 :: nil).
Proof. exact hxa_simulated. Qed.
Print Assumptions C07_codegen_simulates_heap_example_applied.
Theorem C07_codegen_simulates_heap_example_runs :
  run_linear 2000 hx_lin (3 :: 100 :: nil) = ((true, 106) :: nil, OExit 106) /\
  fst (run_a64 20 2000 hxa_code (3 :: 100 :: nil)) = ((true, 106) :: nil, OExit 106).
Proof. exact hxa_runs. Qed.
Print Assumptions C07_codegen_simulates_heap_example_runs.

(* a second example that crosses the register file: the same loop with twelve more integers carried along (15 variables at
   the head of the loop): the block pointers of every object it allocates, the fields it loads and the variables it drops
   live in SPILL SLOTS - acquire_block into a spill slot (`STR X0, [SP, _]`) while the reuse list is non-trivial, loads with
   the X10 evacuation (`STR X10, [SP, 2040]`); named AxCut linearized by the model of the pass *)
From SCC Require Import Proof.A64HSimExampleW.
Theorem C07_codegen_simulates_heap_example_wide_hypotheses :
  prog_ok hxw_prog = true /\
  lin_check_prog hxw_lin = true /\ ann_check_prog hxw_lin = true /\ AxHeapTyping.entry_ext hxw_lin = true /\
  plain_names hxw_lin = true /\ plain_types hxw_lin = true /\ lits_i64 hxw_lin = true /\ tags_i64 hxw_lin = true /\
  (exists lc', a64_compile hxw_lin 0 = Ok (hxw_code, 2%nat, lc')) /\ asm_wf hxw_code = None /\ code_small hxw_code = true /\
  args_i64 (3 :: 100 :: nil) = true /\ X86HSimExample.fits_run 4000 hxw_lin (3 :: 100 :: nil) = true.
Proof. exact hxw_hypotheses. Qed.
Print Assumptions C07_codegen_simulates_heap_example_wide_hypotheses.
Theorem C07_codegen_simulates_heap_example_wide_applied :
  exists outer inner, fst (run_a64 outer inner hxw_code (3 :: 100 :: nil)) = run_linear 4000 hxw_lin (3 :: 100 :: nil).
Proof. exact hxw_simulated. Qed.
Print Assumptions C07_codegen_simulates_heap_example_wide_applied.
Theorem C07_codegen_simulates_heap_example_wide_runs :
  run_linear 4000 hxw_lin (3 :: 100 :: nil) = ((true, 147) :: nil, OExit 147) /\
  fst (run_a64 40 4000 hxw_code (3 :: 100 :: nil)) = ((true, 147) :: nil, OExit 147) /\
  existsb (fun c => match c with STR (X 0) SP _ => true | _ => false end) hxw_code = true /\
  existsb (fun c => match c with STR (X 10) SP 2040 => true | _ => false end) hxw_code = true.
Proof. exact hxw_runs. Qed.
Print Assumptions C07_codegen_simulates_heap_example_wide_runs.

(* ======================= asm_wf and code_small discharged =======================
   `asm_wf cs = None` and `code_small cs = true` are theorems (Props/C14.v C14_a64_compile_asm_wf,
   C14_a64_compile_code_small; Proof/A64WfAll.v, A64WfProg.v) under boolean guards on the PROGRAM handed to the code
   generator, so no hypothesis of the theorems below looks at the emitted code.  The guards (Sem/LabelGuard.v,
   Sem/WfGuard64.v):
     labels_guard      the label texts are unambiguous (known finding label-collision-name-digits outside it)
     (the table dispatch `ADD Xt, Xt, #4k` takes a 12-bit immediate; a larger offset is synthesised in X3, selection
      lemma C07_selection_add_offset, so no bound on the xtors beyond tags_i64 is needed)
     reach_guard_a64   28 + cg_fine_defs 14 74 < 262143 instructions: the routine is shorter than the reach of B.cond /
                       ADR (a real limit of the back end) and fits the image
   The name without `_partial` follows the x86-64 convention (C06_codegen_simulates): what remains besides guards on the
   program is ann_check_prog (a theorem for every output of the linearizer) and heap_fits (a bound along the run). *)
From SCC Require Import Sem.LabelGuard Sem.WfGuard64 Proof.A64WfCor.

Theorem C07_codegen_simulates :
  forall (p : prog) (lc : N) (cs : list acode) (n : nat) (lc' : N) (args : list Z) (fuel : nat) (o : obs),
    lin_check_prog p = true -> ann_check_prog p = true -> AxHeapTyping.entry_ext p = true ->
    plain_names p = true -> plain_types p = true -> lits_i64 p = true -> tags_i64 p = true ->
    labels_guard p = true -> reach_guard_a64 p = true ->
    a64_compile p lc = Ok (cs, n, lc') ->
    List.length args = n -> args_i64 args = true -> heap_fits p args ->
    run_linear fuel p args = o -> snd o <> OOutOfFuel ->
    exists outer inner, fst (run_a64 outer inner cs args) = o.
Proof. exact a64_codegen_simulates_wf. Qed.
Print Assumptions C07_codegen_simulates.

Theorem C07_codegen_correct_linearized :
  forall (a : prog) (lc : N) (cs : list acode) (n : nat) (lc' : N) (args : list Z) (fuel : nat) (o : obs),
    prog_ok a = true ->
    AxHeapTyping.entry_ext (linearize a) = true -> plain_names (linearize a) = true -> plain_types (linearize a) = true ->
    lits_i64 (linearize a) = true -> tags_i64 (linearize a) = true ->
    labels_guard (linearize a) = true -> reach_guard_a64 (linearize a) = true ->
    a64_compile (linearize a) lc = Ok (cs, n, lc') ->
    args_i64 args = true -> heap_fits (linearize a) args ->
    run_linear fuel (linearize a) args = o -> defined o = true ->
    exists outer inner, fst (run_a64 outer inner cs args) = o.
Proof. exact a64_codegen_correct_linearized_wf. Qed.
Print Assumptions C07_codegen_correct_linearized.

(* non-vacuity: the two heap examples pass the guards; the theorem applied to the first one *)
Theorem C07_codegen_simulates_example_guards :
  labels_guard hx_lin = true /\ reach_guard_a64 hx_lin = true /\
  labels_guard hxw_lin = true /\ reach_guard_a64 hxw_lin = true.
Proof. exact hx_lin_guards_a64. Qed.
Print Assumptions C07_codegen_simulates_example_guards.
Theorem C07_codegen_simulates_example_applied :
  exists outer inner, fst (run_a64 outer inner hxa_code (3 :: 100 :: nil)) = run_linear 2000 hx_lin (3 :: 100 :: nil).
Proof. exact hxa_simulated_wf. Qed.
Print Assumptions C07_codegen_simulates_example_applied.
