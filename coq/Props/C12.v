(* C12: accepted programs stay well-typed at every stage; no internal failure.
   Only statements here.  Checkers: Sem/FunTyping.v + Model/Check.v (Fun), Sem/CoreCheck.v (Core:
   wt_core), Sem/FsCheck.v (focused Core: wt_fs, unique_binders, ids_bounded), Sem/AxCheck.v
   (non-linear AxCut: wt_ax), Model/LinCheck.v (prog_ok, lin_check_prog), Model/Capacity.v (the
   documented capacity limits of the back ends).  Proofs: the Proof/ files imported below.

   ONE PRESERVATION STATEMENT PER PASS (full strength, `Definition ... : Prop`), then what is proved.
   "accepted" = the model of the real type checker returns COk (Model/Check.v, tied to the Rust
   checker by C15's correspondence).  [compile_prog_before_fix] and the three repairs of /repo it switches off
   (126604b, d5d4151, f929eb7): see the head of Props/C02.v; it occurs only in theorems named `.._before_fix`. *)
From Coq Require Import List ZArith NArith String Bool.
From SCC Require Import Base.Sexp Lang.FunSyn Lang.CoreSyn Lang.AxSyn.
From SCC Require Import Sem.FunTyping Sem.FsCheck Sem.CoreCheck.
From SCC Require Sem.AxCheck.
From SCC Require Import Model.Check Model.Fun2Core Model.Backend Model.Focus Model.FocusCheck Model.Shrink
     Model.Linearize Model.LinCheck Model.Capacity Model.WtDefs Model.X86 Model.A64 Model.RV.
From SCC Require Import Proof.SubstGraph Proof.CodegenTotal Proof.CodegenX86 Proof.CodegenA64 Proof.CodegenRV
     Proof.AxToLin Proof.LinearizeProof Proof.ShrinkProof Proof.ShrinkSem Proof.ShrinkTyping Proof.WtPreserve Proof.FocusExamples Proof.WtExamples.
From SCC Require Import Sem.FsFrag2 Proof.ShrinkExample2 Proof.ShrinkTyTop.
From SCC Require Import Model.Fun2CoreTyGuard Proof.Fun2CoreTyRefute Proof.Fun2CoreTyChecked.
From SCC Require Proof.CheckFixed.
From SCC Require Import Model.Uniquify Model.FocusTyGuard Proof.Fun2CoreProof Proof.Fun2CoreExamples Proof.Fun2CoreTyProg Proof.Fun2CoreTyTotal
     Proof.Fun2CoreIds Proof.UqTyTop Proof.FocusTyTop Proof.FocusNamesTop Proof.WtPipeline Proof.WtExamples2 Proof.WtExamples3.
From SCC Require Sem.FunNames.
From SCC Require Import Proof.CheckTyGuardProg Proof.CheckTyGuardExamples Proof.CheckTyGuardPipeline.
Import ListNotations.

(* ---- The statements ---- *)

(* Fun -> Core, as the property words it (every accepted program).  Neither proved nor refuted.
   REFUTED for [compile_prog_before_fix] by two witnesses: variable capture (C12_fun2core_typing_refuted_before_fix)
   and a call of `main` (C12_fun2core_call_main_typing_refuted_before_fix).
   PROVED with the boolean guard [prog_tyguard p] as an extra hypothesis (C12_fun2core_preserves_typing_fragment2 +
   C12_fun2core_total_fragment2); the guard follows from acceptance for programs with identifier-like names, no
   type named `_Cont` and declared xtor field types (C12_checked_program_in_tyguard). *)
Definition fun2core_preserves_typing_unguarded : Prop :=
  forall src p, Check.check src = COk p ->
  exists c, compile_prog p = Fun2Core.Ok c /\ wt_core c = true.
(* the form guarded by [barendregt]: binders of each definition pairwise distinct and distinct from its parameters
   (no shadowing, which rules out the capture witness).  It is hypothesis H_fun2core_wt of C12_pipeline_wt_partial
   (C12_hypotheses_are_the_statements).  Neither proved nor refuted.
   REFUTED for [compile_prog_before_fix] by the call-of-main witness (C12_fun2core_preserves_typing_refuted_before_fix),
   and for [compile_prog] with [Check.old_check_main] (the checker without fix 5b8c76f of /repo) in place of
   [Check.check]: a `main` of a non-integer type (C12_regression_old_check_main_result).
   PROVED with [prog_tyguard p] in place of barendregt, as above; C12_fun2core_pre_check needs no guard. *)
Definition fun2core_preserves_typing : Prop :=
  forall src p, Check.check src = COk p -> barendregt p = true ->
  exists c, compile_prog p = Fun2Core.Ok c /\ wt_core c = true /\ pre_check c = true.

(* Core -> focused Core (uniquify + focus).  Totality is PROVED (C12_focus_total_on_typed).  The typing of the output
   (hypothesis H_focus_wt of C12_pipeline_wt_partial / _fragment2, implied by this statement) is REFUTED as it stands
   (C12_focus_preserves_typing_unguarded_refuted: a mismatch between the checkers wt_core and wt_fs / ids_bounded,
   not a defect of focus.rs) and PROVED with the side conditions [xtor_tys_ok c] and [names_le c]
   (C12_focus_preserves_typing). *)
Definition focus_preserves_typing : Prop :=
  forall c, wt_core c = true -> pre_check c = true ->
  exists f, focus_prog c = Backend.Ok f /\ wt_fs f = true /\ unique_binders f = true /\ ids_bounded f = true.

(* focused Core -> AxCut.  Totality is PROVED (C12_shrink_total_on_typed = C04_shrink_total).  The typing of the output
   (hypothesis H_shrink_wt of C12_pipeline_wt_partial, implied by this statement) is REFUTED as it stands
   (C12_shrink_preserves_typing_refuted: a mismatch between the checkers wt_fs and wt_ax, not a defect of core2axcut)
   and PROVED for the whole language with the side condition [frag2t_prog f] (C12_shrink_preserves_typing_fragment2);
   on the first-order integer fragment also without it (C12_shrink_preserves_typing_partial, no binders_ok). *)
Definition shrink_preserves_typing : Prop :=
  forall f, wt_fs f = true -> unique_binders f = true -> ids_bounded f = true ->
  exists a, shrink_prog f = SOk a /\ AxCheck.wt_ax a = true /\ pre_linear_prog a = true /\ binders_ok a = true.

(* AxCut -> linear AxCut (linearization is a total function).  PROVED. *)
Definition linearize_preserves_typing : Prop :=
  forall a, prog_ok a = true -> lin_check_prog (linearize a) = true.

(* linear AxCut -> assembly: no failure other than the capacity limits.  PROVED for all three. *)
Definition codegen_total_x86 : Prop :=
  forall l lc, lin_check_prog l = true -> within_capacity_x86 l = true ->
  exists code lc', x86_compile l lc = Backend.Ok (code, main_arity l, lc').
Definition codegen_total_a64 : Prop :=
  forall l lc, lin_check_prog l = true -> within_capacity_a64 l = true ->
  exists code lc', a64_compile l lc = Backend.Ok (code, main_arity l, lc').
Definition codegen_total_rv : Prop :=
  forall l lc, lin_check_prog l = true -> within_capacity_rv l = true ->
  exists code lc', rv_compile l lc = Backend.Ok (code, main_arity l, lc').

(* ---- Fun -> Core ---- *)

(* REGRESSION (defect capture-under-binder-typing, repaired in /repo by d5d4151; C02's capture-under-binder at the
   level of typing).  `def h(n: i64): i64 { label a { let a: i64 = n + 1; a * 2 } }` is accepted and its translation
   by [compile_prog_before_fix],  < mu a. < n + 1 | mu~ a. < a * 2 | a > > | a0 >,  is ILL-TYPED: the consumer
   occurrence of the label's covariable a is captured by the mu~ binder of the let variable a. *)
Theorem C12_fun2core_typing_refuted_before_fix :
  exists (src : fprog) (p : fcprog) (c : cprog),
    has_type_b src = true /\ Check.check src = COk p /\ annotated_fcprog p = true /\
    compile_prog_before_fix p = Fun2Core.Ok c /\ wt_core c = false /\
    shadowing_risk_prog p = true /\ barendregt p = false.
Proof. exact fun2core_typing_refuted_before_fix_lemma. Qed.
Print Assumptions C12_fun2core_typing_refuted_before_fix.
(* ... its translation by [compile_prog],  < mu a. < mu a1. < n + 1 | mu~ a. < a * 2 | a1 > > | a > | a0 >, is
   well typed; the witness is INSIDE prog_tyguard (C12_fun2core_fragment2_examples) *)
Theorem C12_capture_typing_witness_fixed :
  exists c, compile_prog capture_typing_witness = Fun2Core.Ok c /\ wt_core c = true /\
            shadowing_risk_prog capture_typing_witness = true.
Proof. exact capture_typing_witness_fixed_lemma. Qed.
Print Assumptions C12_capture_typing_witness_fixed.

(* REGRESSION (defect main-non-integer-result, repaired in /repo by 5b8c76f: Def::check compares the declared
   return type of main with i64).  `data Bar { B }  def main(): Bar { B }` (corpus/fun/c12_main_nonint.sc) is accepted
   by [Check.old_check_main], the checker without that comparison, and compile_main types the operand of the final
   `exit` with the annotation of the body:  < B | Bar | mu~ x0. exit x0 >  with x0 : Bar in an integer position.
   [Check.check] and the typing rules (Sem/FunTyping.v: main : i64) reject it. *)
Theorem C12_regression_old_check_main_result :
  exists (src : fprog) (p : fcprog) (c : cprog),
    Check.old_check_main src = COk p /\ Check.check src = CErr EMismatch /\ has_type_b src = false /\
    annotated_fcprog p = true /\
    compile_prog p = Fun2Core.Ok c /\ wt_core c = false /\
    shadowing_risk_prog p = false /\ calls_main_prog p = false /\ barendregt p = true /\
    prog_tyguard p = false.
Proof. exact old_fun2core_main_result_refuted_lemma. Qed.
Print Assumptions C12_regression_old_check_main_result.
Theorem C12_checked_main_is_integer : forall src p d,
  Check.check src = COk p -> In d (fcpdefs p) -> fdname d = "main"%string -> fdret d = FI64.
Proof. exact CheckFixed.check_main_i64. Qed.
Print Assumptions C12_checked_main_is_integer.

(* REGRESSION (defect call-to-main-typing, repaired in /repo by f929eb7).  corpus/fun/call_main_nontail.sc is
   accepted; its translation by [compile_prog_before_fix] calls `main(0, mu~ r. ..)` against `def main(n: prd i64)`:
   wrong number of arguments.  Its translation by [compile_prog] is well typed (C12_call_main_typing_witness_fixed). *)
Theorem C12_fun2core_call_main_typing_refuted_before_fix :
  exists (src : fprog) (p : fcprog) (c : cprog),
    has_type_b src = true /\ Check.check src = COk p /\ annotated_fcprog p = true /\
    compile_prog_before_fix p = Fun2Core.Ok c /\ wt_core c = false /\
    shadowing_risk_prog p = false /\ calls_main_prog p = true /\ barendregt p = true /\
    prog_tyguard p = true.      (* the guard has no call-of-main exclusion any more: the witness is INSIDE *)
Proof. exact fun2core_call_main_typing_refuted_before_fix_lemma. Qed.
Print Assumptions C12_fun2core_call_main_typing_refuted_before_fix.
Theorem C12_call_main_typing_witness_fixed :
  exists c, compile_prog call_main_witness = Fun2Core.Ok c /\ wt_core c = true /\ calls_main_prog call_main_witness = true.
Proof. exact call_main_typing_witness_fixed_lemma. Qed.
Print Assumptions C12_call_main_typing_witness_fixed.
Theorem C12_fun2core_preserves_typing_refuted_before_fix :
  ~ (forall src p, Check.check src = COk p -> barendregt p = true ->
     exists c, compile_prog_before_fix p = Fun2Core.Ok c /\ wt_core c = true /\ pre_check c = true).
Proof.
  intro H. destruct fun2core_call_main_typing_refuted_before_fix_lemma as (src & p & c & _ & Hc & _ & Ec & Hw & _ & _ & Hb & _).
  destruct (H src p Hc Hb) as (c' & Ec' & Hw' & _). rewrite Ec in Ec'. inversion Ec'; subst. rewrite Hw in Hw'. discriminate.
Qed.
Print Assumptions C12_fun2core_preserves_typing_refuted_before_fix.

(* PROVED INSIDE A BOOLEAN GUARD ON THE ANNOTATED CHECKED PROGRAM.  [prog_tyguard p]
   (Model/Fun2CoreTyGuard.v) = for every definition
     tg   the annotated body is well typed at its own annotations, every type compared after compile_ty, every
          signature looked up in the COMPILED declarations (operands i64; branches / let body / case clauses at
          the type of the term; arguments follow the callee / the xtor; clauses follow the xtors of the type in
          declaration order with pairwise distinct parameters; the type of every let variable, goto target,
          label, argument position and definition parameter is declared) - ALL term forms: data and codata, `new`,
          destructors, labels/goto, consumer arguments;
     (NO capture clause and NO call-of-main exclusion: shadowing is allowed - the translation names a continuation
          before it places it under a binder whose name is free in it - and the call clause of tg admits the callee
          `main` - a called main is compiled with a return continuation and the program starts at a fresh entry point
          def main<n>(params) { main(params, mu~x. exit x) };  the detectors [shadowing_risk_prog] and
          [calls_main_prog] of the two defects are not part of the guard);
     the body of `main` has type i64, and when main is called its declared return type is i64 (implied for a program
          that comes out of the checker: C12_tyguard_checked);
     parameters pairwise distinct and of declared types;
   and for the program: type names pairwise distinct and different from _Cont, xtor names distinct within a type,
   definition names distinct (what check_core asks of declarations).
   Key lemma (Proof/Fun2CoreTyShare.v share_ok): a lifted definition share_<f>_<n> is well typed in its parameter
   list, core_lang's TypedFreeVars of the body, and the call that replaces the continuation is typed wherever the
   continuation was.  (tags f2c-guard / f2c-noguard:<why> of the wt-stages run say which inputs are inside). *)
Theorem C12_fun2core_preserves_typing_fragment2 : forall p c,
  prog_tyguard p = true -> compile_prog p = Fun2Core.Ok c -> wt_core c = true.
Proof. exact fun2core_preserves_typing_frag2. Qed.
Print Assumptions C12_fun2core_preserves_typing_fragment2.

(* ... and inside the guard the translation has no internal failure (the model's failures are
   `.expect("Types should be annotated before translation")` and the case that the fresh covariable naming a
   continuation is captured again - unbounded recursion in the Rust code; impossible because the state records all
   binders of the definition) *)
Theorem C12_fun2core_total_fragment2 : forall p, prog_tyguard p = true -> exists c, compile_prog p = Fun2Core.Ok c.
Proof. exact fun2core_total_guarded. Qed.
Print Assumptions C12_fun2core_total_fragment2.

(* FOR CHECKED PROGRAMS the clause about main's type is not needed (C12_checked_main_is_integer).
   [prog_tyguard_src p] (Proof/Fun2CoreTyChecked.v) = prog_tyguard with main treated like every other definition: the
   annotated body has the declared return type and that type is declared - nothing about i64. *)
Theorem C12_tyguard_checked : forall src p,
  Check.check src = COk p -> (prog_tyguard_src p = true <-> prog_tyguard p = true).
Proof.
  intros src p H. pose proof (CheckFixed.check_gen_main_i64 true src p H) as Hm. split.
  - exact (tyguard_src_main p Hm).
  - exact (tyguard_main_src p Hm).
Qed.
Print Assumptions C12_tyguard_checked.
Theorem C12_fun2core_preserves_typing_checked : forall src p c,
  Check.check src = COk p -> prog_tyguard_src p = true -> compile_prog p = Fun2Core.Ok c -> wt_core c = true.
Proof. exact fun2core_preserves_typing_checked. Qed.
Print Assumptions C12_fun2core_preserves_typing_checked.
Theorem C12_fun2core_total_checked : forall src p,
  Check.check src = COk p -> prog_tyguard_src p = true -> exists c, compile_prog p = Fun2Core.Ok c.
Proof. exact fun2core_total_checked. Qed.
Print Assumptions C12_fun2core_total_checked.
(* non-vacuity: the five example programs satisfy the guard.  The witness of C12_regression_old_check_main_result is
   inside prog_tyguard_src; what excludes it from the theorem is the hypothesis `check src = COk p` *)
Example C12_tyguard_src_examples :
  forallb prog_tyguard_src [ex_calls; ex_shared; ex_data; ex_labels; ex_codata] = true
  /\ prog_tyguard_src main_nonint_witness = true /\ prog_tyguard main_nonint_witness = false
  /\ Check.check main_nonint_source = CErr EMismatch.
Proof. split; [vm_compute; reflexivity|]. split; [vm_compute; reflexivity|]. split; vm_compute; reflexivity. Qed.
Print Assumptions C12_tyguard_src_examples.

(* C03's precondition pre_check: every variable identifier is Identifier::new, id 0, and max_id = 0.  No guard. *)
Theorem C12_fun2core_pre_check : forall p c, compile_prog p = Fun2Core.Ok c -> pre_check c = true.
Proof. exact fun2core_pre_check. Qed.
Print Assumptions C12_fun2core_pre_check.

(* non-vacuity: the five multi-definition programs of Proof/Fun2CoreExamples.v (recursion; shared continuations -
   at least two share_ definitions; data with case; labels/goto and a label passed as consumer argument; codata
   with `new`, destructors and by-name values) satisfy the guard; f2c_ok also evaluates the conclusion.  Of the
   regression witnesses, main-non-integer-result is outside the guard; call-to-main and the two capture witnesses are
   INSIDE although [calls_main_prog] / [shadowing_risk_prog] fire on them. *)
Theorem C12_fun2core_fragment2_examples :
  (f2c_ok ex_calls = true /\ f2c_ok ex_shared = true /\ f2c_ok ex_data = true /\ f2c_ok ex_labels = true /\ f2c_ok ex_codata = true) /\
  (2 <= List.length (cpdefs (compiled_or_empty ex_shared)) - 2)%nat /\
  ((prog_tyguard call_main_witness = true /\ calls_main_prog call_main_witness = true /\ f2c_ok call_main_witness = true) /\
   prog_tyguard main_nonint_witness = false /\
   (prog_tyguard capture_witness = true /\ shadowing_risk_prog capture_witness = true /\ f2c_ok capture_witness = true) /\
   (prog_tyguard WtDefs.capture_typing_witness = true /\ shadowing_risk_prog WtDefs.capture_typing_witness = true /\
    f2c_ok WtDefs.capture_typing_witness = true)).
Proof. exact (conj f2c_examples_ok (conj shared_example_lifts guard_on_witnesses)). Qed.
Print Assumptions C12_fun2core_fragment2_examples.

(* CALLS OF MAIN ARE INSIDE THE GUARDS.  The two witnesses of the defect call-to-main, corpus/fun/call_main_nontail.sc
   and corpus/fun/call_main_tail.sc as the checker annotates them, satisfy prog_tyguard, prog_tyguard_src and
   xtor_tys_guard; their translations exist and are well typed and start with the entry point main0 (main's parameters,
   no continuation) followed by main with a return continuation.  The guarded statement is FALSE of
   [compile_prog_before_fix] (C12_fun2core_fragment2_refuted_before_fix). *)
Theorem C12_call_main_witnesses_checked :
  Check.check call_main_source = COk call_main_witness /\ Check.check call_main_tail_source = COk call_main_tail_witness.
Proof. exact call_main_witnesses_checked. Qed.
Print Assumptions C12_call_main_witnesses_checked.
Theorem C12_call_main_witnesses_in_guard :
  forallb (fun p => calls_main_prog p && prog_tyguard p && prog_tyguard_src p && xtor_tys_guard p && f2c_ok p && focus_ok p)
          [call_main_witness; call_main_tail_witness] = true.
Proof. exact call_main_witnesses_in_guard. Qed.
Print Assumptions C12_call_main_witnesses_in_guard.
Theorem C12_call_main_witnesses_typed : forall p, In p [call_main_witness; call_main_tail_witness] ->
  exists c, compile_prog p = Fun2Core.Ok c /\ wt_core c = true.
Proof. exact call_main_witnesses_typed. Qed.
Print Assumptions C12_call_main_witnesses_typed.
Theorem C12_call_main_witness_entry :
  match compile_prog call_main_witness with
  | Fun2Core.Ok c =>
      match cpdefs c with
      | e :: m :: _ => cident_eqb (cdname e) (new_id "main0") && cident_eqb (cdname m) (new_id "main")
                       && Nat.eqb (List.length (cdctx e)) 1 && Nat.eqb (List.length (cdctx m)) 2
      | _ => false
      end
  | Fun2Core.Err _ => false
  end = true.
Proof. exact call_main_witness_entry. Qed.
Print Assumptions C12_call_main_witness_entry.
Theorem C12_fun2core_fragment2_refuted_before_fix :
  ~ (forall p c, prog_tyguard p = true -> compile_prog_before_fix p = Fun2Core.Ok c -> wt_core c = true).
Proof. exact fun2core_guarded_typing_refuted_before_fix. Qed.
Print Assumptions C12_fun2core_fragment2_refuted_before_fix.


(* ======================================================================================== *)
(* Core -> focused Core                                                                     *)
(* ======================================================================================== *)

(* A well-typed Core program has none of the shapes on which focusing panics: literals and operators
   only in producer position; no cut of a constructor against a destructor (a constructor lives at a
   data type, a destructor at a codata type, type names are distinct); no cut of an operator against
   a destructor (i64 against a declared type). *)
Theorem C12_wt_core_focus_wf : forall c, wt_core c = true -> focus_wf c = true.
Proof. exact wt_core_focus_wf. Qed.
Print Assumptions C12_wt_core_focus_wf.

(* focus_preserves_typing, first half: no internal failure of uniquify + focus on a well-typed program
   ("Cannot happen", "Constructors and destructors should always be focused in cuts directly",
   "Arithmetic operators should always be focused in cuts directly", subst_sim's "cannot happen"). *)
Theorem C12_focus_total_on_typed : forall c, wt_core c = true -> exists f, focus_prog c = Backend.Ok f.
Proof. exact focus_total_wt. Qed.
Print Assumptions C12_focus_total_on_typed.

(* `uniquify` preserves typing: alpha-renaming of the binders whose id is 0, by the shadow-aware
   simultaneous substitution of variables for variables.  Hypothesis beyond typing: every variable id <= max_id
   (part of pre_check), so that the fresh names are new.  Calls are re-typed against the renamed parameter lists. *)
Theorem C12_uniquify_preserves_typing : forall c c1,
  wt_core c = true -> forallb (ids_le_def (cpmax c)) (cpdefs c) = true -> uniquify_prog c = Backend.Ok c1 -> wt_core c1 = true.
Proof. exact uniquify_preserves_typing. Qed.
Print Assumptions C12_uniquify_preserves_typing.

(* focus_preserves_typing, second half, PROVED with two boolean side conditions:
     xtor_tys_ok c   the field types of all xtors are declared (wt_core does not ask; focusing cuts every non-variable
                     argument AT THE FIELD TYPE and wt_fs demands a declared type at every cut) - the second half of
                     decls_ok, which the shrinking theorem needs of the focused program anyway;
     names_le c      the ids of the definition NAMES are <= max_id (ids_bounded looks at them; fun2core emits 0).
   Conclusion: the focused program is typed by Sem/FsCheck.v (lookup by numeric id), its binders are distinct along
   every path, all ids are <= the new max_id, and the binders of each definition are GLOBALLY distinct (gub) - all that
   C12_shrink_preserves_typing_fragment2 consumes except names_ok and decls_ok.
   Proof: Proof/UqTy*.v (uniquify), Proof/FocusTy.v (the CPS of focus.rs with a typing invariant for continuations:
   a continuation built at counter m yields a typed statement in every extension of its scope by ids above m, for every
   binding of the right kind and type in scope; the named continuations of Proof/FocusKont.v), binder facts from
   C03's specifications of the two passes. *)
Theorem C12_focus_preserves_typing : forall c f,
  wt_core c = true -> pre_check c = true -> xtor_tys_ok c = true -> names_le c = true ->
  focus_prog c = Backend.Ok f ->
  wt_fs f = true /\ unique_binders f = true /\ ids_bounded f = true /\ gub f = true.
Proof. exact focus_preserves_typing_thm. Qed.
Print Assumptions C12_focus_preserves_typing.

(* ... and the two remaining conjuncts of frag2t_prog, the fragment of the shrinking theorem:
   names_ok  after Prog::focus identifiers with the same id are spelled alike: every occurrence is, by id, the first
             binding of its scope with that id and carries its name (no side condition beyond typing and pre_check);
   decls_ok  parameter types stay declared through uniquify + focus (wt_core checks them), the field types are those of
             the input (xtor_tys_ok). *)
Theorem C12_focus_names_ok : forall c f,
  wt_core c = true -> pre_check c = true -> focus_prog c = Backend.Ok f -> FsFrag2.names_ok f = true.
Proof. exact focus_names_thm. Qed.
Print Assumptions C12_focus_names_ok.
Theorem C12_focus_decls_ok : forall c f,
  wt_core c = true -> pre_check c = true -> xtor_tys_ok c = true -> focus_prog c = Backend.Ok f -> FsFrag2.decls_ok f = true.
Proof. exact focus_decls_ok. Qed.
Print Assumptions C12_focus_decls_ok.

(* ... and without the two side conditions the statement - hypothesis H_focus_wt of C12_pipeline_wt_partial /
   _fragment2, and [focus_preserves_typing] above - is FALSE:
   (1) def main_5() { exit 0 } with max_id = 0 is wt_core and pre_check; the focused program is typed but the id of the
       definition name exceeds max_id (ids_bounded = false);
   (2) data T { K(x: U) } with U undeclared, def main() { < K(mu a. exit 0) | T | mu~ z. exit 0 > } is wt_core and
       pre_check; focusing emits a cut at U and wt_fs rejects it.
   Mismatches between the checkers (as for shrinking), not defects of focus.rs. *)
Theorem C12_focus_preserves_typing_unguarded_refuted :
  ~ H_focus_wt /\
  (wt_core focus_wt_witness1 = true /\ pre_check focus_wt_witness1 = true /\ names_le focus_wt_witness1 = false /\
   exists f, focus_prog focus_wt_witness1 = Backend.Ok f /\ wt_fs f = true /\ ids_bounded f = false) /\
  (wt_core focus_wt_witness2 = true /\ pre_check focus_wt_witness2 = true /\ xtor_tys_ok focus_wt_witness2 = false /\
   exists f, focus_prog focus_wt_witness2 = Backend.Ok f /\ wt_fs f = false).
Proof. exact (conj H_focus_wt_refuted focus_wt_witnesses). Qed.
Print Assumptions C12_focus_preserves_typing_unguarded_refuted.

(* non-vacuity: on the fun2core outputs of the five example programs all hypotheses hold and the conclusion, names_ok
   and decls_ok evaluate to true *)
Theorem C12_focus_examples :
  focus_ok ex_calls = true /\ focus_ok ex_shared = true /\ focus_ok ex_data = true /\ focus_ok ex_labels = true /\ focus_ok ex_codata = true.
Proof. exact focus_examples_ok. Qed.
Print Assumptions C12_focus_examples.


(* ======================================================================================== *)
(* focused Core -> AxCut                                                                    *)
(* ======================================================================================== *)

(* shrink_preserves_typing, first half (= C04_shrink_total): no internal failure of shrinking on a
   well-typed focused program. *)
Theorem C12_shrink_total_on_typed : forall f, wt_fs f = true -> exists a, shrink_prog f = SOk a.
Proof. exact shrink_total. Qed.
Print Assumptions C12_shrink_total_on_typed.

(* shrink_preserves_typing, second half, ON THE FIRST-ORDER INTEGER FRAGMENT of C04_shrink_correct_partial
   ([frag_prog], Proof/ShrinkSem.v: <n | mu~x.s>, <a op b | mu~x.s>, ifc, print, exit, calls with
   integer producer arguments, integer producer parameters) with definition names of id 0 ([names_plain]: what
   fun2core emits; a name lift_.._k with k <> 0 is treated as a lifted definition by wt_ax).  Proof/ShrinkTyping.v.
   Hypotheses on the input: wt_fs and unique_binders only (path uniqueness; neither ids_bounded nor the conditions
   names_ok, decls_ok, gub of the next theorem).  Conclusion: wt_ax and pre_linear_prog, NOT binders_ok (global
   distinctness of binders).  Every construct that involves a consumer - continuations at i64 (_Cont/Ret), renaming
   cuts, data and codata (let/switch/create/invoke, known cuts), eta expansion of unknown cuts and critical pairs,
   lifted statements - and the conclusion binders_ok are covered by C12_shrink_preserves_typing_fragment2 below. *)
Theorem C12_shrink_preserves_typing_partial : forall f a,
  frag_prog f = true -> names_plain f = true -> wt_fs f = true -> unique_binders f = true ->
  shrink_prog f = SOk a ->
  AxCheck.check_prog a = None /\ pre_linear_prog a = true.
Proof. exact shrink_preserves_typing_frag. Qed.
Print Assumptions C12_shrink_preserves_typing_partial.

(* shrink_preserves_typing, second half, PROVED FOR THE WHOLE LANGUAGE on the fragment given by the boolean
   predicate  frag2t_prog f = names_ok f && decls_ok f && gub f  (Sem/FsFrag2.v):
     names_ok  identifiers with the same id are spelled alike (what `uniquify` establishes; wt_fs, the
               substitution of core2axcut and its free-variable computation key on the id only)
     decls_ok  parameter types of definitions and field types of xtors are declared (wt_fs does not ask;
               the AxCut checker demands declared parameter types, and a lifted statement can turn a clause
               parameter into a parameter of a definition).  NOTE: the real type checker's output is not
               closed under the types it mentions (an xtor that is never used can carry a field of a type
               that is never declared: corpus/fun/c15_unused_field_type.sc); such programs are OUTSIDE this
               fragment (tag not-decls_ok of the C04 run).
     gub       the binders of each definition are globally distinct (binders_ok asks for global distinctness;
               unique_binders gives distinctness along each path only)
   All constructs: continuations at i64 (_Cont/Ret), renaming cuts, data and codata (let/switch/create/invoke,
   known cuts), eta expansion of unknown cuts and critical pairs, lifted statements (the new definition is
   typed in the context of its parameters, its call in the context of the lifted statement; its free
   variables are parameters), definition names pairwise distinct, binders globally distinct and <= max_id.
   Proofs: Proof/ShrinkTy{C,Cases,Eta,Fv,Prog,Top}.v, ShrinkLabId.v, ShrinkOld.v, ShrinkBindersOk.v.
   This discharges hypothesis H_shrink_wt of the composition on the fragment (C12_pipeline_wt_fragment2). *)
Theorem C12_shrink_preserves_typing_fragment2 : forall f a,
  frag2t_prog f = true -> wt_fs f = true -> unique_binders f = true -> ids_bounded f = true ->
  shrink_prog f = SOk a ->
  AxCheck.wt_ax a = true /\ pre_linear_prog a = true /\ binders_ok a = true.
Proof. exact shrink_preserves_typing_frag2. Qed.
Print Assumptions C12_shrink_preserves_typing_fragment2.

(* ... and the UNGUARDED statement [shrink_preserves_typing] (hence hypothesis H_shrink_wt as it stands) is
   FALSE of the checkers as defined: a definition with a parameter of an undeclared type passes wt_fs,
   unique_binders and ids_bounded, shrinking succeeds, and the AxCut checker rejects the output ("parameter of
   undeclared type").  A mismatch between Sem/FsCheck.v and Sem/AxCheck.v, not a defect of core2axcut. *)
Theorem C12_shrink_preserves_typing_refuted :
  exists f a, wt_fs f = true /\ unique_binders f = true /\ ids_bounded f = true /\ shrink_prog f = SOk a /\
              AxCheck.wt_ax a = false /\ frag2t_prog f = false.
Proof. exact shrink_typing_unguarded_refuted. Qed.
Print Assumptions C12_shrink_preserves_typing_refuted.

(* non-vacuity: the real focused program of Proof/ShrinkExample2.v (lists, a lazy pair, recursion, two
   lifted statements) lies in the fragment; its image passes wt_ax, pre_linear, binders_ok, prog_ok *)
Theorem C12_example_fragment2 :
  match frag2_focused with
  | Some p =>
      match shrink_prog p with
      | SOk q => frag2t_prog p && decls_ok p && wt_fs p && unique_binders p && ids_bounded p
                 && AxCheck.wt_ax q && pre_linear_prog q && binders_ok q && prog_ok q
                 && Nat.eqb (List.length (filter (fun d => AxCheck.is_lifted_name (dname d)) (pdefs q))) 2
      | SErr _ => false
      end
  | None => false
  end = true.
Proof. exact frag2t_example_ok. Qed.
Print Assumptions C12_example_fragment2.

(* The checker run on the output of shrinking against the hypothesis of the linearization theorem:
   wt_ax implies the typing part of prog_ok; what prog_ok demands in addition is exactly
   [pre_linear_prog] (no explicit substitution, no annotated closure environment - wt_ax accepts
   both) and [binders_ok] (binders of a definition GLOBALLY distinct and <= max_id - wt_ax demands
   freshness along each path only). *)
Theorem C12_wt_ax_prog_ok : forall a,
  AxCheck.check_prog a = None -> pre_linear_prog a = true -> binders_ok a = true -> prog_ok a = true.
Proof. exact wt_ax_prog_ok. Qed.
Print Assumptions C12_wt_ax_prog_ok.
(* ... and the binder condition is not implied: two branches binding the same id *)
Theorem C12_wt_ax_alone_not_prog_ok :
  exists a, AxCheck.check_prog a = None /\ pre_linear_prog a = true /\ prog_ok a = false.
Proof. exists two_branches. exact wt_ax_not_prog_ok. Qed.
Print Assumptions C12_wt_ax_alone_not_prog_ok.

(* ======================================================================================== *)
(* AxCut -> linear AxCut                                                                    *)
(* ======================================================================================== *)

Theorem C12_linearize_preserves_typing : linearize_preserves_typing.
Proof. exact linearize_exact. Qed.
Print Assumptions C12_linearize_preserves_typing.

(* ======================================================================================== *)
(* linear AxCut -> assembly                                                                 *)
(* ======================================================================================== *)

(* THE GENERIC THEOREM.  For any back end whose Temporary order is a strict total order with an
   injective numbering (backend_ok) and whose temporary_from_position / store / load succeed within P
   positions (capacity_ok): on every statement accepted by the ordered linear discipline in a context
   c, when every context reaching a sub-statement has at most K variables with 2K + 2 <= P, the generic
   code generator returns Ok.  So "Variable not found in context", "Type not found", "User-defined type
   cannot be i64", "Xtor not found in type declaration", the underflow of split_off, "Closure
   environment must be annotated" and the recursion of the parallel-move algorithm are unreachable.
   (The generator is started in any context with the same ids as c: it reads ids and lengths only.) *)
Theorem C12_codegen_total_generic :
  forall (Code Temp : Type) (B : backend Code Temp) (P : N),
    backend_ok B -> capacity_ok B P ->
    forall K : nat, (2 * N.of_nat K + 2 <= P)%N ->
    forall (S : sigs) (s : stmt) (c c' : ctx),
      ids c' = ids c -> lin_check S c s = true -> cap_ok K c s = true ->
      forall lc, exists r, code_statement B (sg_types S) s c' lc = Backend.Ok r.
Proof. intros Code Temp B P OKB CO K HK S s. exact (code_statement_total B P OKB CO K HK S s). Qed.
Print Assumptions C12_codegen_total_generic.

(* the three instances; the capacities come from the constants regenerated from the crates on every
   run: 267 / 281 / 28 temporary positions, i.e. at most 132 / 139 / 13 variables in a context *)
Theorem C12_capacity_values :
  positions_x86 = 267%N /\ K_x86 = 132%nat /\ positions_a64 = 281%N /\ K_a64 = 139%nat /\
  positions_rv = 28%N /\ K_rv = 13%nat /\
  X86.temporary_from_position positions_x86 = Backend.Err "Out of temporaries" /\
  A64.temporary_from_position positions_a64 = Backend.Err "Out of temporaries" /\
  RV.temporary_from_position positions_rv = Backend.Err "Out of registers".
Proof. repeat split; reflexivity. Qed.
Print Assumptions C12_capacity_values.

Theorem C12_codegen_total_x86 : codegen_total_x86.
Proof. intros l lc. exact (x86_codegen_total l lc). Qed.
Print Assumptions C12_codegen_total_x86.
Theorem C12_codegen_total_a64 : codegen_total_a64.
Proof. intros l lc. exact (a64_codegen_total l lc). Qed.
Print Assumptions C12_codegen_total_a64.
Theorem C12_codegen_total_rv : codegen_total_rv.
Proof. intros l lc. exact (rv_codegen_total l lc). Qed.
Print Assumptions C12_codegen_total_rv.

(* ======================================================================================== *)
(* The composition                                                                          *)
(* ======================================================================================== *)

(* THE PROPERTY COMPOSED WITH THE THREE TYPING LINKS AS HYPOTHESES (Proof/WtPreserve.v; C12_hypotheses_are_the_statements):
     H_fun2core_wt = fun2core_preserves_typing (guarded by barendregt),
     H_focus_wt    = the typing half of focus_preserves_typing,
     H_shrink_wt   = the typing half of shrink_preserves_typing.
   H_focus_wt and H_shrink_wt are FALSE as they stand (see the Definitions above), so this theorem holds vacuously;
   C12_pipeline_wt / C12_pipeline_wt_source / C12_pipeline_wt_of_check below have no hypothesis of this kind.
   Discharged by proofs: totality of focusing and of shrinking on typed programs, wt_ax -> prog_ok,
   linearization, and all three code generators.  Every hypothesis is evaluated on every run of
   ./check C12 on the REAL output of the corresponding stage for corpus and generated programs. *)
Theorem C12_pipeline_wt_partial :
  H_fun2core_wt -> H_focus_wt -> H_shrink_wt ->
  forall src p, Check.check src = COk p -> barendregt p = true ->
  exists c f a,
    compile_prog p = Fun2Core.Ok c /\ wt_core c = true /\
    focus_prog c = Backend.Ok f /\ wt_fs f = true /\
    shrink_prog f = SOk a /\ AxCheck.wt_ax a = true /\ prog_ok a = true /\
    let l := linearize a in
    lin_check_prog l = true /\
    (forall lc, within_capacity_x86 l = true -> exists code lc', x86_compile l lc = Backend.Ok (code, main_arity l, lc')) /\
    (forall lc, within_capacity_a64 l = true -> exists code lc', a64_compile l lc = Backend.Ok (code, main_arity l, lc')) /\
    (forall lc, within_capacity_rv l = true -> exists code lc', rv_compile l lc = Backend.Ok (code, main_arity l, lc')).
Proof. exact pipeline_wt_partial_lemma. Qed.
Print Assumptions C12_pipeline_wt_partial.

(* THE COMPOSITION WITH THE SHRINK LINK DISCHARGED: instead of hypothesis H_shrink_wt the boolean condition that the
   focused program lies in the fragment of C12_shrink_preserves_typing_fragment2. *)
Theorem C12_pipeline_wt_fragment2 :
  H_fun2core_wt -> H_focus_wt ->
  forall src p, Check.check src = COk p -> barendregt p = true ->
  (forall c f, compile_prog p = Fun2Core.Ok c -> focus_prog c = Backend.Ok f -> frag2t_prog f = true) ->
  exists c f a,
    compile_prog p = Fun2Core.Ok c /\ wt_core c = true /\
    focus_prog c = Backend.Ok f /\ wt_fs f = true /\
    shrink_prog f = SOk a /\ AxCheck.wt_ax a = true /\ prog_ok a = true /\
    let l := linearize a in
    lin_check_prog l = true /\
    (forall lc, within_capacity_x86 l = true -> exists code lc', x86_compile l lc = Backend.Ok (code, main_arity l, lc')) /\
    (forall lc, within_capacity_a64 l = true -> exists code lc', a64_compile l lc = Backend.Ok (code, main_arity l, lc')) /\
    (forall lc, within_capacity_rv l = true -> exists code lc', rv_compile l lc = Backend.Ok (code, main_arity l, lc')).
Proof. exact pipeline_wt_fragment2_lemma. Qed.
Print Assumptions C12_pipeline_wt_fragment2.

(* THE COMPOSITION WITH NO TYPING HYPOTHESIS LEFT.  Hypotheses: the boolean guard prog_tyguard on the
   annotated checked program, and two boolean conditions on ONE STAGE OUTPUT:
     names_ok f, decls_ok f      of the focused program (identifiers with equal ids spelled alike; parameter and field
                                 types declared - the checker's output is not closed under the types it mentions, C15).
   (pre_check of the Core program, a conjunct of H_fun2core_wt, is proved without guard: C12_fun2core_pre_check.)
   Conclusion: every stage succeeds (no internal failure), every intermediate program is accepted by its checker and
   each code generator returns Ok within its documented capacity.  In place of H_fun2core_wt and H_focus_wt of
   C12_pipeline_wt_fragment2 stand the theorems C12_fun2core_preserves_typing_fragment2,
   C12_fun2core_total_fragment2, C12_fun2core_pre_check and C12_focus_preserves_typing. *)
Theorem C12_pipeline_wt : forall p,
  prog_tyguard p = true ->
  (forall c f, compile_prog p = Fun2Core.Ok c -> focus_prog c = Backend.Ok f ->
     FsFrag2.names_ok f = true /\ FsFrag2.decls_ok f = true) ->
  exists c f a,
    compile_prog p = Fun2Core.Ok c /\ wt_core c = true /\
    focus_prog c = Backend.Ok f /\ wt_fs f = true /\
    shrink_prog f = SOk a /\ AxCheck.wt_ax a = true /\ prog_ok a = true /\
    let l := linearize a in
    lin_check_prog l = true /\
    (forall lc, within_capacity_x86 l = true -> exists code lc', x86_compile l lc = Backend.Ok (code, main_arity l, lc')) /\
    (forall lc, within_capacity_a64 l = true -> exists code lc', a64_compile l lc = Backend.Ok (code, main_arity l, lc')) /\
    (forall lc, within_capacity_rv l = true -> exists code lc', rv_compile l lc = Backend.Ok (code, main_arity l, lc')).
Proof. exact pipeline_wt_lemma. Qed.
Print Assumptions C12_pipeline_wt.

(* THE SAME WITH GUARDS ON THE SOURCE PROGRAM ONLY: names_ok and decls_ok of the focused program are proved
   (C12_focus_names_ok, C12_focus_decls_ok); what remains is the boolean xtor_tys_guard p - the field types of all
   (compiled) xtors are declared.  It is not implied by acceptance: the real checker's output is not closed under the
   types it mentions (C15: a never-used xtor can carry a field of a never-declared type), and such programs are outside
   (tag pipe-noguard:xtor-types). *)
Theorem C12_pipeline_wt_source : forall p,
  prog_tyguard p = true -> xtor_tys_guard p = true ->
  exists c f a,
    compile_prog p = Fun2Core.Ok c /\ wt_core c = true /\
    focus_prog c = Backend.Ok f /\ wt_fs f = true /\
    shrink_prog f = SOk a /\ AxCheck.wt_ax a = true /\ prog_ok a = true /\
    let l := linearize a in
    lin_check_prog l = true /\
    (forall lc, within_capacity_x86 l = true -> exists code lc', x86_compile l lc = Backend.Ok (code, main_arity l, lc')) /\
    (forall lc, within_capacity_a64 l = true -> exists code lc', a64_compile l lc = Backend.Ok (code, main_arity l, lc')) /\
    (forall lc, within_capacity_rv l = true -> exists code lc', rv_compile l lc = Backend.Ok (code, main_arity l, lc')).
Proof. exact pipeline_wt_source_lemma. Qed.
Print Assumptions C12_pipeline_wt_source.
(* ... and for a program that comes out of the checker, with the guard that says nothing about main's type: *)
Theorem C12_pipeline_wt_checked : forall src p,
  Check.check src = COk p -> prog_tyguard_src p = true -> xtor_tys_guard p = true ->
  exists c f a,
    compile_prog p = Fun2Core.Ok c /\ wt_core c = true /\
    focus_prog c = Backend.Ok f /\ wt_fs f = true /\
    shrink_prog f = SOk a /\ AxCheck.wt_ax a = true /\ prog_ok a = true /\
    let l := linearize a in
    lin_check_prog l = true /\
    (forall lc, within_capacity_x86 l = true -> exists code lc', x86_compile l lc = Backend.Ok (code, main_arity l, lc')) /\
    (forall lc, within_capacity_a64 l = true -> exists code lc', a64_compile l lc = Backend.Ok (code, main_arity l, lc')) /\
    (forall lc, within_capacity_rv l = true -> exists code lc', rv_compile l lc = Backend.Ok (code, main_arity l, lc')).
Proof.
  intros src p H G X. exact (pipeline_wt_source_lemma p (tyguard_src_checked true src p H G) X).
Qed.
Print Assumptions C12_pipeline_wt_checked.
(* non-vacuity: the five example programs satisfy both source guards *)
Theorem C12_pipeline_wt_source_examples :
  forallb (fun p => prog_tyguard p && xtor_tys_guard p) [ex_calls; ex_shared; ex_data; ex_labels; ex_codata] = true.
Proof. vm_compute. reflexivity. Qed.
Print Assumptions C12_pipeline_wt_source_examples.
(* ... and so do the two programs that call main (the witnesses of the repaired defect call-to-main) *)
Theorem C12_pipeline_wt_source_call_main_examples :
  forallb (fun p => calls_main_prog p && prog_tyguard p && xtor_tys_guard p) [call_main_witness; call_main_tail_witness] = true.
Proof. vm_compute. reflexivity. Qed.
Print Assumptions C12_pipeline_wt_source_call_main_examples.

(* the hypotheses are the statements above *)
Theorem C12_hypotheses_are_the_statements :
  (H_fun2core_wt <-> fun2core_preserves_typing) /\
  (focus_preserves_typing -> H_focus_wt) /\ (shrink_preserves_typing -> H_shrink_wt).
Proof. exact hypotheses_are_statements. Qed.
Print Assumptions C12_hypotheses_are_the_statements.

(* For three real outputs of fun2core (two repository programs, one generated program) the models of
   all passes compose inside Coq, every checker accepts every stage (wt_core, pre_check, wt_fs,
   unique_binders, ids_bounded, wt_core of the embedding, wt_ax, pre_linear, binders_ok, prog_ok,
   lin_check_prog, within capacity) and the x86-64 and AArch64 code generators return Ok. *)
Theorem C12_pipeline_examples :
  pipeline_ok ex_lists = true /\ pipeline_ok ex_case_of = true /\ pipeline_ok ex_gen3 = true.
Proof. exact pipeline_examples_ok. Qed.
Print Assumptions C12_pipeline_examples.

(* ======================================================================================== *)
(* C15 -> C12: every output of the type checker satisfies the typing guard tg                *)
(* ======================================================================================== *)

(* The typing guard [prog_tyguard] of C12_pipeline_wt_source is a boolean re-check of the annotated program; it is also
   evaluated on every run for the outputs of the real checker (tag f2c-guard of modelrun wt-stages).  PROVED here: the
   output of the checker model satisfies it
   (Proof/CheckTyGuard.v: an induction over check_term_gen - the annotated output term satisfies tg in every scope
   that agrees with the checker's context, all term forms; Proof/CheckTyGuardProg.v: definitions, declarations, the
   final symbol table as the compiled declarations).  Hypotheses besides acceptance:
     [prog_names_ok src]   identifier-like names (the domain of C15's theorems; every parsed program),
     [no_cont_decl src]    no declared type is named `_Cont`, the reserved continuation type of the Core checker
                           (every parsed program: the lexer's type names start with a capital letter),
     [xtor_tys_guard p]    the field types of all xtors of the output are declared - the closure guard that
                           C12_pipeline_wt_source asks anyway: the checker's output is not closed under the types it
                           mentions (C15_output_closed_refuted).
   Both extra guards are needed (C12_checked_program_in_tyguard_closure_guard_needed: a used destructor whose return type
   is never instantiated, accepted by the real checker; ..._cont_guard_needed); xtor_tys_guard is not the weakest
   possible closure guard (what is used: the return types of destructors and the field types bound by clauses). *)
Theorem C12_checked_program_in_tyguard : forall src p,
  FunNames.prog_names_ok src = true -> no_cont_decl src = true ->
  Check.check src = COk p -> xtor_tys_guard p = true -> prog_tyguard p = true.
Proof. exact check_tyguard. Qed.
Print Assumptions C12_checked_program_in_tyguard.
(* ... for both versions of the checker, in the form without the main clause *)
Theorem C12_checked_program_in_tyguard_src : forall eager src p,
  FunNames.prog_names_ok src = true -> no_cont_decl src = true ->
  Check.check_gen eager src = COk p -> xtor_tys_guard p = true -> prog_tyguard_src p = true.
Proof. exact check_gen_tyguard_src. Qed.
Print Assumptions C12_checked_program_in_tyguard_src.
(* the declarations alone need no closure guard *)
Theorem C12_checked_program_decls_tyguard : forall eager src p,
  FunNames.prog_names_ok src = true -> no_cont_decl src = true -> Check.check_gen eager src = COk p -> decls_tyguard p = true.
Proof. exact check_gen_decls_tyguard. Qed.
Print Assumptions C12_checked_program_decls_tyguard.

(* THE COMPOSITION whose only program hypothesis is acceptance by the checker (plus the guards above) *)
Theorem C12_pipeline_wt_of_check : forall src p,
  FunNames.prog_names_ok src = true -> no_cont_decl src = true -> Check.check src = COk p -> xtor_tys_guard p = true ->
  exists c f a,
    compile_prog p = Fun2Core.Ok c /\ wt_core c = true /\
    focus_prog c = Backend.Ok f /\ wt_fs f = true /\
    shrink_prog f = SOk a /\ AxCheck.wt_ax a = true /\ prog_ok a = true /\
    let l := linearize a in
    lin_check_prog l = true /\
    (forall lc, within_capacity_x86 l = true -> exists code lc', x86_compile l lc = Backend.Ok (code, main_arity l, lc')) /\
    (forall lc, within_capacity_a64 l = true -> exists code lc', a64_compile l lc = Backend.Ok (code, main_arity l, lc')) /\
    (forall lc, within_capacity_rv l = true -> exists code lc', rv_compile l lc = Backend.Ok (code, main_arity l, lc')).
Proof. exact pipeline_wt_of_check_lemma. Qed.
Print Assumptions C12_pipeline_wt_of_check.

(* non-vacuity: the five example programs are outputs of the checker (on their own declarations and definitions
   as a source program) and satisfy all hypotheses *)
Example C12_pipeline_wt_of_check_examples :
  checked_in_guards ex_calls /\ checked_in_guards ex_shared /\ checked_in_guards ex_data
  /\ checked_in_guards ex_labels /\ checked_in_guards ex_codata.
Proof. exact examples_checked_in_guards. Qed.
Print Assumptions C12_pipeline_wt_of_check_examples.

(* the guards are needed *)
Theorem C12_checked_program_in_tyguard_closure_guard_needed :
  ~ (forall src p, FunNames.prog_names_ok src = true -> no_cont_decl src = true -> Check.check src = COk p -> prog_tyguard p = true).
Proof. exact tyguard_closure_guard_needed. Qed.
Print Assumptions C12_checked_program_in_tyguard_closure_guard_needed.
Example C12_checked_program_in_tyguard_closure_witness :
  FunNames.prog_names_ok p_undeclared_ret = true /\ no_cont_decl p_undeclared_ret = true /\ has_type_b p_undeclared_ret = true
  /\ exists q, Check.check p_undeclared_ret = COk q /\ xtor_tys_guard q = false /\ prog_tyguard q = false.
Proof. exact undeclared_ret_witness. Qed.
Print Assumptions C12_checked_program_in_tyguard_closure_witness.
Theorem C12_checked_program_in_tyguard_cont_guard_needed :
  ~ (forall src p, FunNames.prog_names_ok src = true -> Check.check src = COk p -> xtor_tys_guard p = true -> prog_tyguard p = true).
Proof. exact tyguard_cont_guard_needed. Qed.
Print Assumptions C12_checked_program_in_tyguard_cont_guard_needed.
