(* C19: output size is polynomial - continuations are shared, not duplicated.
   Measures: Lang/FunSyn.v size_fcprog, Lang/CoreSyn.v size_cprog (node counts); Model/SizeFun.v f_wprog,
   Lang/CoreSize.v c_wprog, Lang/FsSize.v fs_wprog, Lang/AxSize.v ax_size_prog (nodes plus the lengths of
   contexts / variable lists).  Proofs: Proof/Size*.v and Proof/Fun2CoreProof.v (sharing lemmas). *)
From Coq Require Import List ZArith NArith String Bool.
From SCC Require Import Base.Sexp Lang.FunSyn Lang.CoreSyn Lang.AxSyn Lang.AxSize Lang.FsSize Lang.CoreSize
     Model.Fun2Core Model.Focus Model.Shrink Model.SizeDefs Model.Linearize Model.Backend
     Model.Uniquify Proof.Fun2CoreProof Proof.SizeLin Proof.SizeCodegen Proof.SizeShrink Proof.SizeFocus Proof.SizeGen Proof.SizeUniquify Model.SizeFun Proof.SizeFun2CoreFv Proof.SizeFun2Core Proof.SizeFun2CoreEntry Proof.SizeFun2CoreProg
     Model.ParMoves Model.LinCheck Model.X86 Model.SizeWf Proof.SizeParMoves Proof.SizeExchange Proof.SizeCodegenWf Proof.SizeX86 Proof.SizePipeline Proof.Fun2CoreExamples Proof.SizeFun2CoreRefute Proof.SizeA64 Proof.SizeRV Proof.SizeLinWidth.
From SCC Require Model.A64 Model.RV.
Import ListNotations.
Open Scope N_scope.

(* ---------- the property at full strength (statements) ---------- *)
(* number of variables of a source program: the largest number of parameters + binders of a definition *)
Definition fun_vars (p : fcprog) : N :=
  fold_right N.max 0 (map (fun d => len (used_binders (fdbody d) (fvars (fdctx d)))) (fcpdefs p)).

(* Fun -> Core: linear in size x (1 + variables).  Not a theorem in this form: fcprog has ill-scoped values,
   and c1 = 12 is refuted (C19_fun2core_size_statement_unscoped_refuted).  Proved, for every program the
   translation accepts: C19_fun2core_size (fun_occ in place of fun_vars), C19_fun2core_size_scoped (fun_tb,
   under the check occ_scoped), C19_fun2core_size_quadratic. *)
Definition fun2core_size_statement (c1 : N) : Prop :=
  forall (p : fcprog) (c : cprog), compile_prog p = Fun2Core.Ok c ->
    size_cprog c <= c1 * size_fcprog p * (1 + fun_vars p).

(* focusing: linear in the weighted size.  Proved with c2 = 4: C19_focus_size. *)
Definition focus_size_statement (c2 : N) : Prop :=
  forall (p : cprog) (q : fsprog), focus_prog p = Backend.Ok q -> fs_wprog q <= c2 * c_wprog p.

(* shrinking, the SHARP form: linear in size x (1 + xtors) x (1 + width).  NOT proved; what is proved
   (C19_shrink_size below) is quadratic in the weighted size, with coefficients from the declarations. *)
Definition shrink_size_statement (c3 : N) : Prop :=
  forall (p : fsprog) (q : prog), shrink_prog p = SOk q ->
    ax_size_prog q <= c3 * (1 + N.max (decl_xtors (fspdata p)) (decl_xtors (fspcodata p))) * fs_wprog p * (1 + ax_width_prog q).

(* ---------- (a) Fun -> Core: the continuation of a branching construct is shared ---------- *)
(* re-exports of the two lemmas of C02: `if` and multi-clause `case` with a non-leaf continuation lift
   it ONCE (`share`); every branch receives the same k = mu~ x. share_f_n(free variables). *)
Theorem C19_fun2core_ifc_shares_continuation : forall cur s ca cb wt we cont st r st',
  cont_is_small cont = false ->
  wc_ifc cur s ca cb wt we cont st = Fun2Core.Ok (r, st') ->
  exists k st1 d a b t e st2 st3,
    share cur cont st = Fun2Core.Ok (k, st1) /\
    st_lifted st1 = d :: st_lifted st /\
    (size_cstmt (cdbody d) <= size_cterm cont + 2)%N /\
    (size_cterm k = 2 + N.of_nat (List.length (cdctx d)))%N /\
    wt k st2 = Fun2Core.Ok (t, st3) /\ we k st3 = Fun2Core.Ok (e, st') /\
    r = CIfC (sort_of s) a b t e /\
    (size_cstmt r = 1 + size_cterm a + match b with Some b' => size_cterm b' | None => 0 end
                    + size_cstmt t + size_cstmt e)%N.
Proof. exact fun2core_ifc_shares_continuation. Qed.
Print Assumptions C19_fun2core_ifc_shares_continuation.

Theorem C19_fun2core_case_shares_continuation : forall cur wscrut sty n ccls cont st r st',
  cont_is_small cont = false -> (2 <= n)%nat ->
  wc_case cur wscrut sty n ccls cont st = Fun2Core.Ok (r, st') ->
  exists k st1 d,
    share cur cont st = Fun2Core.Ok (k, st1) /\
    st_lifted st1 = d :: st_lifted st /\
    (size_cstmt (cdbody d) <= size_cterm cont + 2)%N /\
    (size_cterm k = 2 + N.of_nat (List.length (cdctx d)))%N /\
    exists cls st2 ty, ccls k st1 = Fun2Core.Ok (cls, st2) /\ wscrut (CXCase CCns cls ty) st2 = Fun2Core.Ok (r, st').
Proof. exact fun2core_case_shares_continuation. Qed.
Print Assumptions C19_fun2core_case_shares_continuation.

(* ---------- (b) linearization ---------- *)
(* every statement gains at most one Substitute (Create also its closure-environment annotation), no
   longer than the current context plus the statement's own arguments.  Holds for every fuel. *)
Theorem C19_lin_size : forall fuel s c m,
  ax_size (fst (lin fuel s c m)) <= 2 * ax_size s + ax_nstmts s * (3 * (1 + (len c + ax_nbind s))).
Proof. exact lin_size. Qed.
Print Assumptions C19_lin_size.

Theorem C19_linearize_size : forall p,
  ax_size_prog (linearize p) <= 2 * ax_size_prog p + 3 * ax_nstmts_prog p * (1 + ax_width_prog p).
Proof. exact linearize_size_lemma. Qed.
Print Assumptions C19_linearize_size.

Theorem C19_linearize_size_poly : forall p,
  ax_size_prog (linearize p) <= ax_size_prog p * (5 + 3 * ax_width_prog p).
Proof. exact linearize_size_poly_lemma. Qed.
Print Assumptions C19_linearize_size_poly.

(* ---------- (c) code generation, any back end ---------- *)
(* [cost_model B K]: abstract costs of the back end's operations; hypothesis of C19_codegen_size and
   C19_codegen_size_exact.  Proved of no back end: the last clause (ANY move table) asks too much
   (C19_parallel_moves_indeg1_needed).  [cost_model_wf] (Proof/SizeCodegenWf.v) restricts that clause to a
   Substitute whose contexts have distinct ids; it follows from this form (C19_cost_model_weaker) and holds of
   the three back ends: C19_x86_cost_model, C19_a64_cost_model, C19_rv_cost_model. *)
Definition cost_model {Code Temp : Type} (B : backend Code Temp) (K : N) : Prop :=
  1 <= K /\
  (forall c, len (b_mark B c) <= K) /\ (forall t, len (b_jump B t) <= K) /\
  (forall l, len (b_jump_label B l) <= K) /\ (forall l, len (b_jump_label_fixed B l) <= K) /\
  (forall so a b l, len (b_jcc2 B so a b l) <= K) /\ (forall so a l, len (b_jcc1 B so a l) <= K) /\
  (forall t z, len (b_load_immediate B t z) <= K) /\ (forall t l, len (b_load_label B t l) <= K) /\
  (forall t z, len (b_add_and_jump B t z) <= K) /\ (forall o a b c, len (b_arith B o a b c) <= K) /\
  (forall a b, len (b_mov B a b) <= K) /\
  (forall nl t c, len (b_print B nl t c) <= K * (1 + len c)) /\
  (forall t lc, len (fst (b_erase B t lc)) <= K) /\ (forall t n lc, len (fst (b_share_n B t n lc)) <= K) /\
  (forall a r lc code lc', b_store B a r lc = Backend.Ok (code, lc') -> len code <= K * (1 + len a)) /\
  (forall a r lc code lc', b_load B a r lc = Backend.Ok (code, lc') -> len code <= K * (1 + len a)) /\
  (forall tm c nc code, code_exchange B tm c nc = Backend.Ok code -> len code <= K * (1 + len c + len nc)).

Theorem C19_codegen_size : forall {Code Temp : Type} (B : backend Code Temp) (K : N), cost_model B K ->
  forall types s c lc code lc',
  code_statement B types s c lc = Backend.Ok (code, lc') ->
  len code <= K * (ax_size s * (5 + 2 * ax_maxw s (len c))).
Proof.
  intros Code Temp B K (H1 & H2 & H3 & H4 & H5 & H6 & H7 & H8 & H9 & H10 & H11 & H12 & H13 & H14 & H15 & H16 & H17 & H18).
  eapply codegen_size_lemma; eauto.
Qed.
Print Assumptions C19_codegen_size.

(* whole programs (`translate`), with the recursive bound cg_bound of Lang/AxSize.v, which C19_cg_bound_poly
   bounds by the polynomial of C19_codegen_size *)
Theorem C19_codegen_size_exact : forall {Code Temp : Type} (B : backend Code Temp) (K : N), cost_model B K ->
  forall types ds lc code lc',
  translate B types ds lc = Backend.Ok (code, lc') -> len code <= K * cg_bound_defs ds.
Proof.
  intros Code Temp B K (H1 & H2 & H3 & H4 & H5 & H6 & H7 & H8 & H9 & H10 & H11 & H12 & H13 & H14 & H15 & H16 & H17 & H18).
  eapply translate_size_lemma; eauto.
Qed.
Print Assumptions C19_codegen_size_exact.

Theorem C19_cg_bound_poly : forall s n, cg_bound s n <= ax_size s * (5 + 2 * ax_maxw s n).
Proof. exact cg_bound_poly. Qed.
Print Assumptions C19_cg_bound_poly.

(* ---------- (d) shrinking ---------- *)
(* the sharing step: a critical pair at a declared type with >= 2 xtors whose expanded side is not a
   leaf lifts that side ONCE; every clause of the eta-expansion gets a call of it *)
Theorem C19_shrink_critical_pair_shares : forall fuel E vp sp vc sc name xs st r st',
  shrink_critical_pairs (shrink_stmt fuel E) E vp sp vc sc (CDecl name) st = SOk (r, st') ->
  xtors_of E (CDecl name) name = SOk xs -> (2 <= List.length xs)%nat ->
  let cod := is_codata (e_codata E) (CDecl name) in
  let expand := if cod then sp else sc in
  let keep := if cod then sc else sp in
  let ve := if cod then vp else vc in
  let vk := if cod then vc else vp in
  is_leaf_statement expand = false ->
  exists call st1 cls st2 next,
    lift (shrink_stmt fuel E) E expand st = SOk (call, st1) /\
    ax_size call = 1 + len (typed_free_vars expand) /\
    len (typed_free_vars expand) <= 2 * fs_wstmt expand /\
    critical_clauses (e_codata E) ve (shrink_ty (CDecl name)) call xs st1 = (cls, st2) /\
    ax_size_cls cls <= len xs * (2 + 2 * env_A E + ax_size call) /\
    shrink_stmt fuel E keep st2 = SOk (next, st') /\
    r = Create vk (Decl name) None cls next.
Proof. exact critical_pair_shares_lemma. Qed.
Print Assumptions C19_shrink_critical_pair_shares.

(* one statement, every fuel: the shrunk statement plus everything lifted while producing it *)
Theorem C19_shrink_stmt_size : forall fuel E s st r st',
  shrink_stmt fuel E s st = SOk (r, st') ->
  ax_size r + ax_size_defs (s_lifted st') <=
  ax_size_defs (s_lifted st) + fs_wstmt s * ((2 + env_X E * (2 + env_A E)) + 2 * (1 + env_X E) * fs_wstmt s).
Proof. exact shrink_stmt_size. Qed.
Print Assumptions C19_shrink_stmt_size.

(* whole programs; X = largest number of xtors of a type (_Cont included), A = largest xtor arity *)
Theorem C19_shrink_size : forall p q, shrink_prog p = SOk q ->
  ax_size_prog q <= fs_wprog p * ((2 + prog_X p * (2 + prog_A p)) + 2 * (1 + prog_X p) * fs_wprog p).
Proof. exact shrink_size_lemma. Qed.
Print Assumptions C19_shrink_size.

(* ---------- focusing ---------- *)
(* every non-value argument is named once (3 nodes), the continuation of `bind` is used exactly once *)
Theorem C19_focus_stmt_size : forall s m s' m',
  focus_stmt s m = Backend.Ok (s', m') -> fs_wstmt s' <= 4 * c_wstmt s.
Proof. exact focus_stmt_size. Qed.
Print Assumptions C19_focus_stmt_size.

(* Prog::focus = uniquify, then focus every definition; here relative to the uniquified program p1 *)
Theorem C19_focus_size_partial : forall p p1 q,
  uniquify_prog p = Backend.Ok p1 -> focus_prog p = Backend.Ok q -> fs_wprog q <= 4 * c_wprog p1.
Proof. exact focus_prog_size_partial_lemma. Qed.
Print Assumptions C19_focus_size_partial.

(* ---------- the renaming pass and the unconditional focusing bound ---------- *)
(* `uniquify` only renames: both sizes are preserved exactly (Proof/SizeUniquify.v) *)
Theorem C19_uniquify_size : forall p p1, uniquify_prog p = Backend.Ok p1 ->
  c_wprog p1 = c_wprog p /\ size_cprog p1 = size_cprog p.
Proof. exact uniquify_size_lemma. Qed.
Print Assumptions C19_uniquify_size.

Theorem C19_focus_size : focus_size_statement 4.
Proof. exact focus_prog_size_lemma. Qed.
Print Assumptions C19_focus_size.

(* ---------- Fun -> Core, whole programs, every term form ---------- *)
(* the free bindings of the translation of t against cont are typed variable occurrences of t
   (Model/SizeFun.v tocc) or free in cont; compiler-generated names never escape.  Hence a shared
   continuation has at most (distinct typed occurrences of the definition) + 2 parameters. *)
Theorem C19_fun2core_free_vars : forall codata cur t cont st s st',
  wc codata cur false t cont st = Fun2Core.Ok (s, st') -> cont_cns cont ->
  forall b, In b (Fun2Core.tfv_stmt s []) -> In b (tocc t) \/ In b (Fun2Core.tfv_term cont []).
Proof. exact occ_wc. Qed.
Print Assumptions C19_fun2core_free_vars.

(* one definition body; U any list containing the typed occurrences; k = 0 node counts, k = 1 weighted
   sizes; `lz` = everything lifted so far *)
Theorem C19_fun2core_wc_size : forall codata cur k U t cont st s st',
  wc codata cur false t cont st = Fun2Core.Ok (s, st') -> cok U cont -> incl (tocc t) U ->
  cz_stmt k s + lz k st' + 2 <= lz k st + fz k t * (6 + 2 * (len U + 2) + k * (len U + 2)) + cz_term k cont.
Proof. exact sz_wc. Qed.
Print Assumptions C19_fun2core_wc_size.

(* whole programs, all definitions incl. the lifted share_* ones and - when main is called - the entry point
   main<n>(params) { main(params, mu~x. exit x) }.  entry_params p (Model/SizeFun.v) = #params of main when some
   call targets main, else 0 (C19_entry_params): the parameters of a definition are not nodes of the source.  The
   node bound needs the term (C19_fun2core_size_without_entry_refuted), the weighted bound does not.
   fun_occ p = the largest number of DISTINCT typed variable occurrences (name, chirality, type) in one
   definition.  The weighted form is the one the pipeline needs. *)
Theorem C19_fun2core_size : forall p c, compile_prog p = Fun2Core.Ok c ->
  size_cprog c <= size_fcprog p * (10 + 2 * fun_occ p) + entry_params p /\
  c_wprog c <= f_wprog p * (12 + 3 * fun_occ p) /\
  fun_occ p <= size_fcprog p.
Proof.
  intros p c H. split; [exact (fun2core_size_nodes p c H)|]. split; [exact (fun2core_size_weighted p c H)|].
  exact (fun_occ_le_size p).
Qed.
Print Assumptions C19_fun2core_size.
Theorem C19_entry_params : forall p,
  (calls_main_prog p = false -> entry_params p = 0) /\ entry_params p <= f_wprog p.
Proof. intros p. split; [exact (entry_params_ncm p) | exact (entry_params_le p)]. Qed.
Print Assumptions C19_entry_params.
(* the entry point *)
Theorem C19_fun2core_entry_size : forall k codata d nm ul e ule,
  compile_main false (entry_fdef d nm) codata ul = Fun2Core.Ok (e, ule) ->
  cz_defs k e = 5 + len (fdctx d) + k * len (fdctx d).
Proof. exact entry_size. Qed.
Print Assumptions C19_fun2core_entry_size.
(* witness: `def main(x0 .. x29) { main() }` (Proof/SizeFun2CoreEntry.v entry_refute_witness), a call of main
   with fewer arguments than parameters; the type checker rejects it.  Whether the term can be dropped for
   arity-consistent programs is open. *)
Theorem C19_fun2core_size_without_entry_refuted :
  ~ (forall p c, compile_prog p = Fun2Core.Ok c -> size_cprog c <= size_fcprog p * (10 + 2 * fun_occ p)).
Proof. exact fun2core_size_without_entry_refuted. Qed.
Print Assumptions C19_fun2core_size_without_entry_refuted.
(* non-vacuity: corpus/fun/call_main_nontail.sc, where main is called *)
Example C19_fun2core_size_call_main_example :
  calls_main_prog call_main_witness = true /\ entry_params call_main_witness = 1 /\
  match compile_prog call_main_witness with
  | Fun2Core.Ok c => N.leb (size_cprog c) (f2c_bound_nodes call_main_witness) && N.leb (c_wprog c) (f2c_bound_weighted call_main_witness)
  | Fun2Core.Err _ => false
  end = true.
Proof. split; [vm_compute; reflexivity|]. split; vm_compute; reflexivity. Qed.
Print Assumptions C19_fun2core_size_call_main_example.

(* occ_scoped p (Model/SizeFun.v, boolean): every typed occurrence of a definition is one of its parameters /
   let variables / clause parameters / labels at the declared type; fun_tb p = the largest number of those in
   a definition.  The stated form size x (1 + variables), with the scoping hypothesis it needs. *)
Theorem C19_fun2core_size_scoped : forall p c, compile_prog p = Fun2Core.Ok c -> occ_scoped p = true ->
  size_cprog c <= size_fcprog p * (10 + 2 * fun_tb p) + entry_params p /\ c_wprog c <= f_wprog p * (12 + 3 * fun_tb p).
Proof. exact fun2core_size_scoped. Qed.
Print Assumptions C19_fun2core_size_scoped.

(* witness (Proof/SizeFun2CoreRefute.v): a definition without binders mentioning 40 variables bound nowhere
   under 40 nested `case (if ..)`; the type checker rejects it *)
Theorem C19_fun2core_size_statement_unscoped_refuted : ~ fun2core_size_statement 12.
Proof. exact fun2core_size_statement_12_refuted. Qed.
Print Assumptions C19_fun2core_size_statement_unscoped_refuted.

(* in the size alone *)
Theorem C19_fun2core_size_quadratic : forall p c, compile_prog p = Fun2Core.Ok c ->
  size_cprog c <= size_fcprog p * (10 + 2 * size_fcprog p) + entry_params p.
Proof. exact fun2core_size_quadratic. Qed.
Print Assumptions C19_fun2core_size_quadratic.

(* ---------- the cost model, discharged for the three back ends; the instruction bounds ---------- *)
(* C19_codegen_size_wf below also asks [sub_wf] (Model/SizeWf.v): every Substitute met has old and new
   contexts with pairwise distinct ids *)
Theorem C19_cost_model_weaker : forall {Code Temp : Type} (B : backend Code Temp) (K : N),
  cost_model B K -> cost_model_wf B K.
Proof.
  intros Code Temp B K (H1 & H2 & H3 & H4 & H5 & H6 & H7 & H8 & H9 & H10 & H11 & H12 & H13 & H14 & H15 & H16 & H17 & H18).
  repeat split; auto. intros re c code _ _ H. apply H18 in H. rewrite SizeLin.len_map in H. exact H.
Qed.
Print Assumptions C19_cost_model_weaker.

Theorem C19_codegen_size_wf : forall {Code Temp : Type} (B : backend Code Temp) (K : N), cost_model_wf B K ->
  forall types ds lc code lc', sub_wf_defs ds = true ->
  translate B types ds lc = Backend.Ok (code, lc') -> len code <= K * cg_bound_defs ds.
Proof. intros Code Temp B K H. apply translate_size_wf. exact H. Qed.
Print Assumptions C19_codegen_size_wf.

(* sub_wf holds of linearize's output for checked programs (C05_linearize_exact: prog_ok p ->
   lin_check_prog (linearize p)) *)
Theorem C19_lin_check_sub_wf : forall p, lin_check_prog p = true -> sub_wf_prog p = true.
Proof. exact lin_check_prog_sub_wf. Qed.
Print Assumptions C19_lin_check_sub_wf.

(* the counting lemma of the parallel-move algorithm: at most 2 pseudo-instructions per edge, one per key *)
Theorem C19_parallel_moves_count : forall (T : Type) (eqb : T -> T -> bool),
  (forall a b, reflect (a = b) (eqb a b)) ->
  forall fuel (A : amap T) rs, indeg1 T eqb A -> nodup_targets T eqb A -> spanning_forest T eqb fuel A = Some rs ->
  (List.length (flat_map (root_moves T) rs) <= 2 * List.length (all_targets T A) + List.length A)%nat.
Proof. exact parallel_moves_len. Qed.
Print Assumptions C19_parallel_moves_count.

(* in-degree <= 1 cannot be dropped: on a chain of d diamonds (two sources for one target) the spanning
   tree unfolds the DAG; triples (pseudo-instructions, edges, keys) *)
Example C19_parallel_moves_indeg1_needed :
  diamonds_count 8 = Some (1020, 32, 24) /\ diamonds_count 12 = Some (16380, 48, 36).
Proof. exact diamonds_count_8_12. Qed.
Print Assumptions C19_parallel_moves_indeg1_needed.

(* x86-64: K = 40 + 13 * FIELDS_PER_BLOCK dominates the per-variable cost of storing and loading a context
   (costs listed at the head of Proof/SizeX86.v).  x86_cost_model_wf is stated for x86_backend_with mark and
   assumes b_mark emits at most one instruction; x86_backend has the empty marker (same for A64; Model/RV.v
   has a single back end). *)
Theorem C19_x86_cost_model : cost_model_wf x86_backend x86_K.
Proof. apply x86_cost_model_wf. intros c. vm_compute. discriminate. Qed.
Print Assumptions C19_x86_cost_model.

Theorem C19_x86_codegen_size : forall types ds lc code lc',
  sub_wf_defs ds = true ->
  translate x86_backend types ds lc = Backend.Ok (code, lc') -> len code <= x86_K * cg_bound_defs ds.
Proof. intros types ds lc code lc'. apply x86_translate_size. intros c. vm_compute. discriminate. Qed.
Print Assumptions C19_x86_codegen_size.

(* the whole routine; 30 = x86_routine_overhead (Model/SizeWf.v): preamble, setup, argument moves, cleanup *)
Theorem C19_x86_compile_size : forall p lc r n lc',
  sub_wf_prog p = true -> x86_compile p lc = Backend.Ok (r, n, lc') ->
  len r <= 30 + x86_K * cg_bound_defs (pdefs p).
Proof. exact x86_compile_size. Qed.
Print Assumptions C19_x86_compile_size.

(* AArch64: K = 40 + 15 * FIELDS_PER_BLOCK, routine overhead 28 (costs: head of Proof/SizeA64.v); RISC-V:
   K = 20 + 13 * FIELDS_PER_BLOCK (head of Proof/SizeRV.v), no routine wrapper; the model emits nothing for
   print and rv_compile rejects programs that print, as the real back end panics there *)
Theorem C19_a64_cost_model : cost_model_wf A64.a64_backend a64_K.
Proof. apply a64_cost_model_wf. intros c. vm_compute. discriminate. Qed.
Print Assumptions C19_a64_cost_model.

Theorem C19_a64_compile_size : forall p lc r n lc',
  sub_wf_prog p = true -> A64.a64_compile p lc = Backend.Ok (r, n, lc') ->
  len r <= 28 + a64_K * cg_bound_defs (pdefs p).
Proof. exact a64_compile_size. Qed.
Print Assumptions C19_a64_compile_size.

Theorem C19_rv_cost_model : cost_model_wf RV.rv_backend rv_K.
Proof. exact rv_cost_model_wf. Qed.
Print Assumptions C19_rv_cost_model.

Theorem C19_rv_compile_size : forall p lc r n lc',
  sub_wf_prog p = true -> RV.rv_compile p lc = Backend.Ok (r, n, lc') ->
  len r <= rv_K * cg_bound_defs (pdefs p).
Proof. exact rv_compile_size. Qed.
Print Assumptions C19_rv_compile_size.

(* ---------- the composition ---------- *)
(* AxCut after shrinking and after linearization, from the source alone.  pipeline_shrunk_bound and
   pipeline_ax_bound (Model/SizeFun.v) compose the stage bounds above on W = f_wprog p, V = fun_occ p,
   X = fun_X p, A = fun_A p; closed forms with w = pl_w p = 12 W (4 + V), d = pl_d p = 4 + X (4 + A)
   (Proof/SizePipeline.v). *)
Theorem C19_pipeline_ax_size : forall p c q s,
  compile_prog p = Fun2Core.Ok c -> focus_prog c = Backend.Ok q -> shrink_prog q = SOk s ->
  ax_size_prog s <= pipeline_shrunk_bound p /\ ax_size_prog (linearize s) <= pipeline_ax_bound p /\
  pipeline_shrunk_bound p <= pl_d p * pl_w p ^ 2 /\ pipeline_ax_bound p <= 8 * (pl_d p * pl_w p ^ 2) ^ 2.
Proof.
  intros p c q s H1 H2 H3. split; [exact (pipeline_shrunk_size p c q s H1 H2 H3)|].
  split; [exact (pipeline_ax_size p c q s H1 H2 H3)|]. split; [exact (pipeline_shrunk_closed p) | exact (pipeline_ax_closed p)].
Qed.
Print Assumptions C19_pipeline_ax_size.

(* in terms of the statement BEFORE linearization (factor 2: a Create rearranges the context into
   rest ++ captured environment) *)
Theorem C19_lin_max_context : forall fuel s c m,
  ax_maxw (fst (lin fuel s c m)) (len c) <= 2 * len c + 2 * ax_size s.
Proof. exact lin_maxw. Qed.
Print Assumptions C19_lin_max_context.

Theorem C19_cg_bound_linearize : forall p,
  cg_bound_defs (pdefs (linearize p)) <= ax_size_prog (linearize p) * (5 + 4 * ax_size_prog p).
Proof. exact cg_bound_linearize. Qed.
Print Assumptions C19_cg_bound_linearize.

(* instructions of the x86-64 routine: degree 6 in W (4 + V), degree 3 in d.  Shrinking and linearization
   each square (bounds size x (1 + width); width <= size is the only estimate that needs no scoping
   invariant), code generation multiplies by the size before linearization.  Guard: sub_wf of the linearized
   program. *)
Theorem C19_pipeline_size : forall p c q s lc r n lc',
  compile_prog p = Fun2Core.Ok c -> focus_prog c = Backend.Ok q -> shrink_prog q = SOk s ->
  sub_wf_prog (linearize s) = true ->
  x86_compile (linearize s) lc = Backend.Ok (r, n, lc') ->
  len r <= 30 + x86_K * (pipeline_ax_bound p * (5 + 4 * pipeline_shrunk_bound p)) /\
  pipeline_ax_bound p * (5 + 4 * pipeline_shrunk_bound p) <= 72 * (pl_d p * pl_w p ^ 2) ^ 3.
Proof.
  intros p c q s lc r n lc' H1 H2 H3 HW H5. split; [exact (pipeline_x86_size p c q s lc r n lc' H1 H2 H3 HW H5)|].
  exact (pipeline_cg_closed p).
Qed.
Print Assumptions C19_pipeline_size.

(* the guard discharged through C05_linearize_exact when the shrunk program passes prog_ok (typed, binders
   unique); modelrun evaluates sub_wf on the real linearized program of every case *)
Theorem C19_pipeline_size_prog_ok : forall p c q s lc r n lc',
  compile_prog p = Fun2Core.Ok c -> focus_prog c = Backend.Ok q -> shrink_prog q = SOk s ->
  prog_ok s = true ->
  x86_compile (linearize s) lc = Backend.Ok (r, n, lc') ->
  len r <= 30 + x86_K * (pipeline_ax_bound p * (5 + 4 * pipeline_shrunk_bound p)).
Proof. exact pipeline_x86_size_prog_ok. Qed.
Print Assumptions C19_pipeline_size_prog_ok.

(* the hypotheses are satisfiable: ex_shared (Proof/Fun2CoreExamples.v), two shared continuations; the
   end-to-end composition is very loose.  pipeline_run (Proof/SizePipeline.v): size, weighted size, occurrences,
   X, A of the source; sizes (Core nodes, Core weighted, focused, shrunk, linearized); fun2core bounds (nodes,
   weighted); (cg_bound_defs, instructions, prog_ok, lin_check_prog, sub_wf_prog); (pipeline_ax_bound,
   pipeline_x86_bound, x86_bound) *)
Example C19_pipeline_example :
  pipeline_run ex_shared =
    Some (33, 36, 5, 1, 1, (73, 84, 85, 63, 93), (660, 972), (220, 259, true, true, true),
          (10975529531126448, 209780290354108469245288878, 17410)).
Proof. vm_compute. reflexivity. Qed.
Print Assumptions C19_pipeline_example.
