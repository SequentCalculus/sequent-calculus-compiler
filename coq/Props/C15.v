(* C15: the type checker accepts exactly the well-typed programs.
   Statements; each is proved by `exact lemma` or by a line (a few lines for two refutations, the order-dependence
   witness and the instance-name theorem) that instantiates lemmas of Proof/Check*.v, TypingReject.v, PrintInj.v:
   the fifteen C15_reject_* theorems about a site are [reject_site] (Proof/TypingReject.v: a definition body
   containing, anywhere, a non-variable term that is ill-typed in every environment at every type makes the program
   ill-typed) at the lemma about that site.
     check            Model/Check.v     faithful model of fun::syntax::program::Program::check (as it is
                                        since fixes d524b1f, eb42971, 5b8c76f of /repo)
     check_before_fix Model/Check.v     the same without the line that fix d524b1f added (regression statements)
     old_check_decls  Model/Check.v     the same with the declaration types checked by head name only, the code
                                        before fix eb42971 (regression statements)
     old_check_main   Model/Check.v     the same without the comparison of main's return type with i64, the code
                                        before fix 5b8c76f (regression statements; C12)
     has_type         Sem/FunTyping.v   the declarative typing rules (independent of the model)
   Soundness is FALSE of [old_check_decls] (types written in data/codata declarations checked by head name only:
   finding C15-lazy-declaration-types, repaired by fix eb42971; the witnesses corpus/fun/c15-ill-accepted-*.sc are
   regression inputs).  Completeness is false of [check_before_fix] (instance-creation order, repaired by fix d524b1f;
   witnesses corpus/fun/c15-wt-instance-order*.sc).  For identifier-like names (every parsed program) [check]
   DECIDES the typing rules (C15_check_exact_poly_partial, C15_check_decides). *)
From Coq Require Import List String Bool Permutation.
From SCC Require Import Lang.SynUtil Lang.FunSyn Model.Check Sem.FunTyping Sem.FunErase Proof.CheckWitness Proof.CheckAnn Proof.TypingReject Proof.CheckMono Proof.CheckProof.
From SCC Require Import Proof.PrintInj Proof.CheckPoly Proof.CheckPolySound Proof.CheckPolyProg Proof.CheckPolyProgC Proof.CheckPolyProof.
From SCC Require Import Sem.FunNames Sem.FunClosed Proof.CheckBuild Proof.CheckInst Proof.CheckArity Proof.CheckScope Proof.CheckDecls Proof.CheckFixed.
Import ListNotations.

(* Soundness, full statement: `forall p q, check p = COk q -> has_type p`.
   REGRESSION (fix eb42971): it is false of the checker that looks only at the head name of a type inside a
   data/codata declaration ([old_check_decls]) - for a PARSED program (identifier-like names): `data Foo { C(x: List) }`
   with `data List[A] {..}` is accepted by it.  [check] rejects the witness (C15_declaration_witnesses_rejected).
   For [check] soundness is proved for all programs with identifier-like names
   (C15_check_sound_poly_partial below); over ALL syntax trees the statement stays false for a reason no parser can
   trigger (C15_names_guard_needed: a type literally named `List[i64]`). *)
Theorem C15_regression_old_check_decls_unsound :
  ~ (forall p q, prog_names_ok p = true -> old_check_decls p = COk q -> has_type p).
Proof.
  intro H. destruct decl_type_args_accepted_before_fix as [q Hq].
  assert (Hn : prog_names_ok p_decl_type_args = true) by (vm_compute; reflexivity).
  specialize (H _ _ Hn Hq). unfold has_type in H. rewrite decl_type_args_ill_typed in H. discriminate.
Qed.
Print Assumptions C15_regression_old_check_decls_unsound.
(* the three shapes of that finding (wrong number of type arguments, undeclared type in argument position, type
   parameter applied to arguments): ill-typed, accepted by the old code, rejected by the checker - the witnesses
   discriminate *)
Theorem C15_declaration_witnesses_rejected :
  (has_type_b p_decl_type_args = false /\ (exists q, old_check_decls p_decl_type_args = COk q)
     /\ check p_decl_type_args = CErr EWrongNumberOfTypeArguments)
  /\ (has_type_b p_decl_unknown_type = false /\ (exists q, old_check_decls p_decl_unknown_type = COk q)
     /\ check p_decl_unknown_type = CErr EUndefined)
  /\ (has_type_b p_param_applied = false /\ (exists q, old_check_decls p_param_applied = COk q)
     /\ check p_param_applied = CErr EWrongNumberOfTypeArguments).
Proof.
  exact (conj (conj decl_type_args_ill_typed (conj decl_type_args_accepted_before_fix decl_type_args_rejected))
        (conj (conj decl_unknown_type_ill_typed (conj decl_unknown_type_accepted_before_fix decl_unknown_type_rejected))
              (conj param_applied_ill_typed (conj param_applied_accepted_before_fix param_applied_rejected)))).
Qed.
Print Assumptions C15_declaration_witnesses_rejected.
(* old_check_gen with both switches on IS the checker: the old_ copies differ from it in exactly the repaired places *)
Theorem C15_old_check_gen_current : forall p, old_check_gen true true p = check p.
Proof. exact old_check_gen_current. Qed.
Print Assumptions C15_old_check_gen_current.

(* Partial versions: programs without type parameters and type arguments.
   [mono_prog p] (Proof/CheckMono.v): every data/codata declaration has an empty parameter list,
   every type written in the program is i64 or a declared name without arguments, every case and
   destructor call has an empty type-argument list.
   On this fragment no hypothesis on names is needed (every type-argument list is empty, so the printed name of
   an instance is the declared name).  For programs WITH type parameters both directions are proved further down
   under the guard [prog_names_ok] (C15_check_sound_poly_partial, C15_check_complete_poly_partial); neither set
   of theorems contains the other, since [mono_prog p] does not imply [prog_names_ok p] (a type without
   parameters may be named `A[i64]` in a syntax tree). *)
Theorem C15_check_sound_partial : forall p q, mono_prog p = true -> check p = COk q -> has_type p.
Proof. exact check_sound_partial. Qed.
Print Assumptions C15_check_sound_partial.

(* Completeness, full statement `forall p, has_type p -> exists q, check p = COk q`, on the fragment ... *)
Theorem C15_check_complete_partial :
  forall p, mono_prog p = true -> has_type p -> exists q, check p = COk q.
Proof. exact check_complete_partial. Qed.
Print Assumptions C15_check_complete_partial.
(* ... so on the fragment the checker decides the typing rules, and its verdict depends on the
   order of the declarations only as far as the rules' verdict does. *)
Theorem C15_check_exact_partial :
  forall p, mono_prog p = true -> (has_type p <-> exists q, check p = COk q).
Proof. exact check_exact_partial. Qed.
Print Assumptions C15_check_exact_partial.
Theorem C15_check_order_independent_partial : forall p p', mono_prog p = true -> mono_prog p' = true ->
  (has_type p <-> has_type p') -> ((exists q, check p = COk q) <-> (exists q, check p' = COk q)).
Proof. exact check_order_independent_partial. Qed.
Print Assumptions C15_check_order_independent_partial.

(* The counterexamples to completeness of [check_before_fix] (a constructor / `new` checked against a type whose
   instance no earlier definition has created) are accepted by [check], in every order of the definitions ... *)
Theorem C15_instance_order_witnesses_accepted :
  (exists q, check p_instance_order = COk q) /\ (exists q, check p_instance_order_fixed = COk q)
  /\ (exists q, check p_instance_order_late = COk q).
Proof. exact (conj instance_order_accepted (conj instance_order_fixed_accepted instance_order_late_accepted)). Qed.
Print Assumptions C15_instance_order_witnesses_accepted.
(* ... and they are discriminating regression inputs: without the line added by fix d524b1f the
   model rejects the first (a well-typed program of the fragment) and accepts or rejects the other
   two depending on the order of the same declarations; on the fragment that is its only possible
   wrong rejection (Undefined). *)
Theorem C15_regression_before_fix_incomplete :
  ~ (forall p, mono_prog p = true -> has_type p -> exists q, check_before_fix p = COk q).
Proof. exact check_before_fix_incomplete_in_fragment. Qed.
Print Assumptions C15_regression_before_fix_incomplete.
Theorem C15_regression_before_fix_order_dependent :
  exists p p', Permutation (fpdecls p) (fpdecls p') /\ (exists q, check_before_fix p = COk q) /\ (exists e, check_before_fix p' = CErr e).
Proof.
  exists p_instance_order_fixed, p_instance_order_late.
  destruct check_before_fix_order_dependent as [Ha [Hr Hp]].
  split; [exact Hp|]. split; [exact Ha|]. eexists; exact Hr.
Qed.
Print Assumptions C15_regression_before_fix_order_dependent.
Theorem C15_regression_before_fix_undefined_only_partial : forall p, mono_prog p = true -> has_type p ->
  (exists q, check_before_fix p = COk q) \/ check_before_fix p = CErr EUndefined.
Proof. exact check_before_fix_undefined_only_partial. Qed.
Print Assumptions C15_regression_before_fix_undefined_only_partial.

(* The checked program is the parsed program plus annotations.  For every accepted program: the checked definitions are the parsed definitions, in the same
   order, with the same names, parameters and result types; each body is the parsed body with
   annotation fields filled in and the clauses of every case/new permuted ([ann_of]: same tree up
   to ty/chi/clause-context fields and clause order) ... *)
Theorem C15_check_annotates :
  forall p q, check p = COk q -> Forall2 def_ann (fcpdefs q) (defs_of (fpdecls p)).
Proof. exact check_annotates. Qed.
Print Assumptions C15_check_annotates.
(* ... and no annotation is missing. *)
Theorem C15_check_annotated : forall p q, check p = COk q -> annotated_fcprog q = true.
Proof. exact check_annotated. Qed.
Print Assumptions C15_check_annotated.

(* Single ill-typed edits are rejected by the typing rules.
   "for all programs and all sites": the conclusion holds for EVERY program that contains the
   edited construct ANYWHERE in the body of a definition ([occurs]); no hypothesis on the rest of
   the program (it need not be well-typed). *)
Theorem C15_reject_wrong_argument_count_call : forall p d f args r,
  In d (fdefs (fpdecls p)) -> occurs (FCall f args r) (fdbody d) ->
  (forall d', find_def (fdefs (fpdecls p)) f = Some d' -> List.length args <> List.length (fdctx d')) ->
  has_type_b p = false.
Proof. intros. eapply reject_site; eauto using call_arg_count. Qed.
Print Assumptions C15_reject_wrong_argument_count_call.
Theorem C15_reject_wrong_argument_count_ctor : forall p d k args r,
  In d (fdefs (fpdecls p)) -> occurs (FCtor k args r) (fdbody d) ->
  (forall td sg, In td (tdecls (fpdecls p)) -> find_xsig td k = Some sg -> List.length args <> List.length (xs_args sg)) ->
  has_type_b p = false.
Proof. intros. eapply reject_site; eauto using ctor_arg_count. Qed.
Print Assumptions C15_reject_wrong_argument_count_ctor.
Theorem C15_reject_wrong_argument_count_dtor : forall p d s k targs args r,
  In d (fdefs (fpdecls p)) -> occurs (FDtor s k targs args r) (fdbody d) ->
  (forall td sg, In td (tdecls (fpdecls p)) -> find_xsig td k = Some sg -> List.length args <> List.length (xs_args sg)) ->
  has_type_b p = false.
Proof. intros. eapply reject_site; eauto using dtor_arg_count. Qed.
Print Assumptions C15_reject_wrong_argument_count_dtor.

(* a variable that is neither a parameter nor bound by a let / label / clause of the body *)
Theorem C15_reject_unbound_variable : forall p d x a c,
  In d (fdefs (fpdecls p)) -> occurs (FVar x a c) (fdbody d) ->
  ~ In x (map fbvar (fdctx d)) -> ~ In x (binders (fdbody d)) ->
  has_type_b p = false.
Proof. exact reject_unbound_variable. Qed.
Print Assumptions C15_reject_unbound_variable.

(* a case in which some constructor of the matched type has no clause (removing a clause of a
   well-typed case gives exactly this), or with no clause at all *)
Theorem C15_reject_missing_clause : forall p d s targs c0 cls r,
  In d (fdefs (fpdecls p)) -> occurs (FCase s targs (c0 :: cls) r) (fdbody d) ->
  (forall td sg, find_xtor (tdecls (fpdecls p)) FData (clause_xtor c0) = Some (td, sg) ->
     exists k, In k (map xs_name (td_xtors td)) /\ ~ In k (map clause_xtor (c0 :: cls))) ->
  has_type_b p = false.
Proof. intros. eapply reject_site; eauto using case_missing_clause. Qed.
Print Assumptions C15_reject_missing_clause.
Theorem C15_reject_empty_case : forall p d s targs r,
  In d (fdefs (fpdecls p)) -> occurs (FCase s targs [] r) (fdbody d) -> has_type_b p = false.
Proof. intros. eapply reject_site; eauto using case_empty. Qed.
Print Assumptions C15_reject_empty_case.
(* for `new` the missing destructor is relative to the type the term is checked against (the same
   clause list may be complete for another codata type), so the statement is local: at that type the
   term is ill-typed in every environment. *)
Theorem C15_reject_missing_clause_new_partial : forall ts fs cls r n targs td k,
  find_type ts n = Some td -> In k (map xs_name (td_xtors td)) -> ~ In k (map clause_xtor cls) ->
  forall G, chk ts fs G (FNew cls r) (FDecl n targs) = false.
Proof. exact new_missing_clause. Qed.
Print Assumptions C15_reject_missing_clause_new_partial.

Theorem C15_reject_duplicated_clause_case : forall p d s targs cls r x l1 l2 l3,
  In d (fdefs (fpdecls p)) -> occurs (FCase s targs cls r) (fdbody d) ->
  map clause_xtor cls = l1 ++ x :: l2 ++ x :: l3 -> has_type_b p = false.
Proof. intros. eapply reject_site; eauto using case_dup_clause. Qed.
Print Assumptions C15_reject_duplicated_clause_case.
Theorem C15_reject_duplicated_clause_new : forall p d cls r x l1 l2 l3,
  In d (fdefs (fpdecls p)) -> occurs (FNew cls r) (fdbody d) ->
  map clause_xtor cls = l1 ++ x :: l2 ++ x :: l3 -> has_type_b p = false.
Proof. intros. eapply reject_site; eauto using new_dup_clause. Qed.
Print Assumptions C15_reject_duplicated_clause_new.
Theorem C15_reject_extra_clause : forall p d s targs c0 cls r c,
  In d (fdefs (fpdecls p)) -> occurs (FCase s targs (c0 :: cls) r) (fdbody d) -> In c (c0 :: cls) ->
  (forall td sg, find_xtor (tdecls (fpdecls p)) FData (clause_xtor c0) = Some (td, sg) ->
     ~ In (clause_xtor c) (map xs_name (td_xtors td))) ->
  has_type_b p = false.
Proof. intros. eapply reject_site; eauto using case_extra_clause. Qed.
Print Assumptions C15_reject_extra_clause.
Theorem C15_reject_wrong_binder_count_case : forall p d s targs c0 cls r pl x xs cx body,
  In d (fdefs (fpdecls p)) -> occurs (FCase s targs (c0 :: cls) r) (fdbody d) ->
  In (FClause pl x xs cx body) (c0 :: cls) ->
  (forall td sg, In td (tdecls (fpdecls p)) -> find_xsig td x = Some sg -> List.length xs <> List.length (xs_args sg)) ->
  has_type_b p = false.
Proof. intros. eapply reject_site; eauto using case_binder_count. Qed.
Print Assumptions C15_reject_wrong_binder_count_case.
Theorem C15_reject_wrong_binder_count_new : forall p d cls r pl x xs cx body,
  In d (fdefs (fpdecls p)) -> occurs (FNew cls r) (fdbody d) -> In (FClause pl x xs cx body) cls ->
  (forall td sg, In td (tdecls (fpdecls p)) -> find_xsig td x = Some sg -> List.length xs <> List.length (xs_args sg)) ->
  has_type_b p = false.
Proof. intros. eapply reject_site; eauto using new_binder_count. Qed.
Print Assumptions C15_reject_wrong_binder_count_new.
Theorem C15_reject_wrong_type_argument_count_dtor : forall p d s k targs args r,
  In d (fdefs (fpdecls p)) -> occurs (FDtor s k targs args r) (fdbody d) ->
  (forall td sg, In td (tdecls (fpdecls p)) -> find_xsig td k = Some sg -> List.length targs <> List.length (td_params td)) ->
  has_type_b p = false.
Proof. intros. eapply reject_site; eauto using dtor_type_arg_count. Qed.
Print Assumptions C15_reject_wrong_type_argument_count_dtor.
Theorem C15_reject_wrong_type_argument_count_case : forall p d s targs c0 cls r,
  In d (fdefs (fpdecls p)) -> occurs (FCase s targs (c0 :: cls) r) (fdbody d) ->
  (forall td sg, In td (tdecls (fpdecls p)) -> find_xsig td (clause_xtor c0) = Some sg -> List.length targs <> List.length (td_params td)) ->
  has_type_b p = false.
Proof. intros. eapply reject_site; eauto using case_type_arg_count. Qed.
Print Assumptions C15_reject_wrong_type_argument_count_case.
Theorem C15_reject_unknown_definition : forall p d f args r,
  In d (fdefs (fpdecls p)) -> occurs (FCall f args r) (fdbody d) -> find_def (fdefs (fpdecls p)) f = None ->
  has_type_b p = false.
Proof. intros. eapply reject_site; eauto using call_unknown. Qed.
Print Assumptions C15_reject_unknown_definition.
Theorem C15_reject_unknown_constructor : forall p d k args r,
  In d (fdefs (fpdecls p)) -> occurs (FCtor k args r) (fdbody d) ->
  (forall td, In td (tdecls (fpdecls p)) -> find_xsig td k = None) -> has_type_b p = false.
Proof. intros. eapply reject_site; eauto using ctor_unknown. Qed.
Print Assumptions C15_reject_unknown_constructor.
Theorem C15_reject_unknown_destructor : forall p d s k targs args r,
  In d (fdefs (fpdecls p)) -> occurs (FDtor s k targs args r) (fdbody d) ->
  (forall td, In td (tdecls (fpdecls p)) -> find_xsig td k = None) -> has_type_b p = false.
Proof. intros. eapply reject_site; eauto using dtor_unknown. Qed.
Print Assumptions C15_reject_unknown_destructor.

(* two definitions, or two type declarations, with the same name anywhere in a program; a
   constructor declared twice in one data type *)
Theorem C15_reject_duplicate_declaration : forall l1 d l2 d' l3,
  same_kind d d' = true -> decl_name d = decl_name d' ->
  has_type_b (mkfprog (l1 ++ d :: l2 ++ d' :: l3)) = false.
Proof. exact reject_duplicate_declaration. Qed.
Print Assumptions C15_reject_duplicate_declaration.
Theorem C15_reject_duplicate_constructor : forall l1 n ps c1 k sg1 c2 sg2 c3 l2,
  has_type_b (mkfprog (l1 ++ FDData (mkfdata n ps (c1 ++ mkfctor k sg1 :: c2 ++ mkfctor k sg2 :: c3)) :: l2)) = false.
Proof. exact reject_duplicate_constructor. Qed.
Print Assumptions C15_reject_duplicate_constructor.

(* The polymorphic fragment: type parameters, type arguments, instances keyed by printed names.
   Soundness and completeness for programs WITH type parameters.  One boolean guard:
     [prog_names_ok p]  (Sem/FunNames.v)  every type / constructor / destructor name occurring in p
        is free of the characters "[" "]" "," " " and is not "i64".  True of every parsed program (the lexer's
        classes [A-Z][a-zA-Z0-9_]* and [a-z][a-zA-Z0-9_]*, "i64" being a keyword); needed because instances are
        keyed by PRINTED names: without it a type may be NAMED like an instance ([C15_names_guard_needed]).
   [decl_types_wf ts] (Sem/FunNames.v: the types written inside the data/codata declarations are well-formed) is
   not a hypothesis: the checker ESTABLISHES it (the test added by fix eb42971), for all programs
   (C15_check_accepts_only_wf_declarations).
   GAP to the full statement: none other than the guard on names. *)
Theorem C15_check_accepts_only_wf_declarations : forall p q,
  check p = COk q -> decl_types_wf (tdecls (fpdecls p)) = true.
Proof. exact (check_gen_decl_types_wf true). Qed.
Print Assumptions C15_check_accepts_only_wf_declarations.
Theorem C15_check_rejects_ill_formed_declaration : forall p,
  decl_types_wf (tdecls (fpdecls p)) = false -> exists e, check p = CErr e.
Proof. exact (check_gen_rejects_ill_formed_decl true). Qed.
Print Assumptions C15_check_rejects_ill_formed_declaration.
(* the check of a declaration type is exactly the rule, in every state the checker can be in: *)
Theorem C15_check_template_exact : forall ts fs st ps t, tables ts fs st ->
  forallb (fun p => negb (is_some (find_type ts p))) ps = true ->
  (ty_check_template st ps t = COk tt <-> wf_tty ts ps t = true).
Proof. intros ts fs st ps t Tb Hf. exact (ty_check_template_iff ts fs st Tb ps Hf t). Qed.
Print Assumptions C15_check_template_exact.
(* nothing is instantiated by that check, so non-regular recursion in a declaration is fine:
   data Wrap[A] { W(x: A) }  data Nest[A] { Flat(x: A), Deep(n: Nest[Wrap[A]]) } with Deep(Flat(W(5))) : Nest[i64] *)
Example C15_nonregular_declaration_accepted :
  has_type_b p_nest = true /\ prog_names_ok p_nest = true
  /\ exists q, check p_nest = COk q /\ map fdaname (fcpdata q) = ["Nest[Wrap[i64]]"; "Nest[i64]"; "Wrap[i64]"]%string.
Proof. exact nest_accepted. Qed.
Print Assumptions C15_nonregular_declaration_accepted.

Theorem C15_check_sound_poly_partial : forall p q,
  prog_names_ok p = true -> check p = COk q -> has_type p.
Proof. exact check_sound. Qed.
Print Assumptions C15_check_sound_poly_partial.
Theorem C15_check_complete_poly_partial : forall p,
  prog_names_ok p = true -> has_type p -> exists q, check p = COk q.
Proof. exact check_complete_poly. Qed.
Print Assumptions C15_check_complete_poly_partial.
(* for identifier-like names the checker accepts exactly the programs that satisfy the typing rules ... *)
Theorem C15_check_exact_poly_partial : forall p, prog_names_ok p = true ->
  (has_type p <-> exists q, check p = COk q).
Proof. exact check_exact. Qed.
Print Assumptions C15_check_exact_poly_partial.
(* ... i.e. it decides them: every program is accepted or rejected according to the boolean specification *)
Theorem C15_check_decides : forall p, prog_names_ok p = true ->
  (has_type_b p = true -> exists q, check p = COk q) /\ (has_type_b p = false -> exists e, check p = CErr e).
Proof. exact check_decides. Qed.
Print Assumptions C15_check_decides.
Theorem C15_check_order_independent_poly_partial : forall p p', prog_names_ok p = true -> prog_names_ok p' = true ->
  (has_type p <-> has_type p') -> ((exists q, check p = COk q) <-> (exists q, check p' = COk q)).
Proof. exact check_order_independent. Qed.
Print Assumptions C15_check_order_independent_poly_partial.
(* the checker before fix d524b1f was sound under the same guard, so that fix only added acceptances *)
Theorem C15_regression_before_fix_sound_poly_partial : forall p q,
  prog_names_ok p = true -> check_before_fix p = COk q ->
  has_type p /\ exists q', check p = COk q'.
Proof. exact check_before_fix_sound. Qed.
Print Assumptions C15_regression_before_fix_sound_poly_partial.
(* the entry point (fix 5b8c76f; the rule `main : i64` of Sem/FunTyping.v def_ok): in the checked program every
   definition named main returns i64 - for ALL programs; a main of another type is rejected with Mismatch (the
   witness of C12's finding main-non-integer-result, accepted by the code before the fix, [old_check_main]) *)
Theorem C15_check_main_i64 : forall p q d,
  check p = COk q -> In d (fcpdefs q) -> fdname d = "main"%string -> fdret d = FI64.
Proof. exact check_main_i64. Qed.
Print Assumptions C15_check_main_i64.
Example C15_main_witness_rejected :
  check p_main_nonint = CErr EMismatch /\ has_type_b p_main_nonint = false /\ prog_names_ok p_main_nonint = true
  /\ exists q, old_check_main p_main_nonint = COk q.
Proof. exact main_nonint_rejected. Qed.
Print Assumptions C15_main_witness_rejected.
(* the guards are satisfiable by a program with nested instances at several types, which is well-typed
   and accepted (corpus/fun/c15-poly-nested-instances.sc) ... *)
Example C15_poly_guards_satisfiable :
  prog_names_ok p_poly = true /\ decl_types_wf (tdecls (fpdecls p_poly)) = true /\ has_type p_poly
  /\ exists q, check p_poly = COk q
       /\ map fdaname (fcpdata q) = ["List[List[i64]]"; "List[i64]"; "Pair[List[i64], i64]"; "Pair[i64, List[i64]]"]%string
       /\ map fcoaname (fcpcodata q) = ["Fun[i64, i64]"]%string.
Proof. exact (conj p_poly_names_ok (conj p_poly_decl_types_wf (conj p_poly_well_typed p_poly_accepted))). Qed.
Print Assumptions C15_poly_guards_satisfiable.
(* ... and the name guard cannot be dropped (a syntax tree whose type is literally named "List[i64]"; no parsed
   program): the full statement over ALL syntax trees is false *)
Theorem C15_names_guard_needed :
  ~ (forall p q, decl_types_wf (tdecls (fpdecls p)) = true -> check p = COk q -> has_type p).
Proof. exact check_sound_without_names_guard_refuted. Qed.
Print Assumptions C15_names_guard_needed.
Theorem C15_check_sound_all_syntax_trees_refuted : ~ (forall p q, check p = COk q -> has_type p).
Proof. intro H. apply check_sound_without_names_guard_refuted. intros p q _ Hq. exact (H p q Hq). Qed.
Print Assumptions C15_check_sound_all_syntax_trees_refuted.

(* The instance table.
   Instances are keyed by PRINTED names (`List[i64]`, `Pair[i64, List[i64]]`); later stages find the
   declaration of a type by that name (fun2core::compile_ty, lookup_type_declaration: "Type .. not found").
   (a) printing is injective in (head, arguments) for identifier-like names - two different instances never
       share a name, and no parsed declaration can be named like an instance; without the condition it is not; *)
Theorem C15_instance_names_injective : forall n1 a1 n2 a2,
  name_ok n1 = true -> name_ok n2 = true -> tys_names_ok a1 = true -> tys_names_ok a2 = true ->
  print_ty (FDecl n1 a1) = print_ty (FDecl n2 a2) -> n1 = n2 /\ a1 = a2.
Proof.
  intros n1 a1 n2 a2 H1 H2 A1 A2 E.
  assert (FDecl n1 a1 = FDecl n2 a2) as Heq by (apply print_ty_inj; [rewrite ty_names_ok_decl, H1, A1|rewrite ty_names_ok_decl, H2, A2|exact E]; reflexivity).
  inversion Heq. auto.
Qed.
Print Assumptions C15_instance_names_injective.
Example C15_instance_names_collide_without_guard :
  print_ty (FDecl "List" [FI64]) = print_ty (FDecl "List[i64]" [])
  /\ print_ty (FDecl "P" [FDecl "A" []; FDecl "B" []]) = print_ty (FDecl "P" [FDecl "A, B" []])
  /\ print_ty (FDecl "P" [FI64]) = print_ty (FDecl "P" [FDecl "i64" []]).
Proof. exact print_collision_without_name_ok. Qed.
Print Assumptions C15_instance_names_collide_without_guard.
(* (b) the declarations of the checked program have pairwise different names ... *)
Theorem C15_instance_names_distinct : forall p q,
  prog_names_ok p = true -> check p = COk q -> NoDup (decl_names q).
Proof. exact (check_instance_names_distinct true). Qed.
Print Assumptions C15_instance_names_distinct.
(* ... and each of them is a declared template instantiated (positionally) at well-formed type arguments,
   under the printed name of that instance; *)
Theorem C15_instances_are_instantiated_templates : forall p q,
  prog_names_ok p = true -> check p = COk q ->
  Forall (is_data_instance (tdecls (fpdecls p))) (fcpdata q) /\ Forall (is_codata_instance (tdecls (fpdecls p))) (fcpcodata q).
Proof. exact (check_instances_spec true). Qed.
Print Assumptions C15_instances_are_instantiated_templates.
(* (c) closure. [defs_closed q] (Sem/FunClosed.v): every type of a definition signature, every let annotation,
   every annotation of a variable / call / constructor / destructor / `new` term and every type argument of a
   destructor call or case is i64 or has a declaration in q under its printed name.  These are the types of all
   producers, i.e. everything a later stage looks up.  GAP to the full statement [fcprog_closed]: the field types
   of the instance declarations, the binder contexts of clauses and the annotations merely passed down
   (if / print / let / label / goto / exit / case) need not be declared - see the refutation below. *)
Theorem C15_output_closed_partial : forall p q,
  prog_names_ok p = true -> check p = COk q -> defs_closed q = true.
Proof. exact (check_output_closed true). Qed.
Print Assumptions C15_output_closed_partial.
(* the declared names are closed under type arguments: with `List[Pair[i64, Foo]]` also `Pair[i64, Foo]` and `Foo` *)
Theorem C15_instances_closed_under_type_arguments : forall p q n a,
  prog_names_ok p = true -> check p = COk q -> name_ok n = true -> tys_names_ok a = true ->
  In (print_ty (FDecl n a)) (decl_names q) -> forallb (ty_declared (decl_names q)) a = true.
Proof. exact (check_instances_closed_under_targs true). Qed.
Print Assumptions C15_instances_closed_under_type_arguments.
(* full closure is FALSE of the faithful model and of the real checker (corpus/fun/c15_unused_field_type.sc,
   c15_unused_instance_field.sc): create_instance inserts the substituted field types without Ty::check, clause
   binders are not checked either.  Not a defect by itself: the program is well-typed, and no later stage looks the
   undeclared type up (C12's stage checkers and all three code generators accept the witnesses). *)
Theorem C15_output_closed_refuted : ~ (forall p q, has_type p -> check p = COk q -> fcprog_closed q = true).
Proof. exact output_closed_refuted. Qed.
Print Assumptions C15_output_closed_refuted.
Example C15_output_closed_witness :
  prog_names_ok p_unused_field_type = true /\ has_type_b p_unused_field_type = true
  /\ exists q, check p_unused_field_type = COk q /\ decl_names q = ["Foo"%string] /\ defs_closed q = true /\ fcprog_closed q = false.
Proof. exact unused_field_type_witness. Qed.
Print Assumptions C15_output_closed_witness.
(* (d) the internal panic of check_with_table ("Couldn't find constructor .. in symbol_table") is unreachable:
   once the definitions are checked, every instance has all its xtor instances *)
Theorem C15_collect_cannot_panic : forall p st defs st1,
  prog_names_ok p = true -> build_symbol_table p = COk st ->
  check_defs (defs_of (fpdecls p)) st = COk (defs, st1) ->
  exists das cos, collect_types st1 (st_types st1) = COk (das, cos).
Proof. exact (collect_cannot_panic true). Qed.
Print Assumptions C15_collect_cannot_panic.

(* Arity: a wrong number of type arguments is rejected by the CHECKER at every site.
   [bad_arity ts t] (Proof/CheckArity.v): somewhere inside t (at the top or nested in its arguments) a declared
   type is applied to a number of arguments different from its number of parameters - too few or too many.
   One theorem per site; "for all programs" with identifier-like names (every parsed program).  They rest on
   Ty::check being sound for [wf_ty] (Proof/CheckPoly.v ty_check_sound), whose arity test is an equality: the model's
   test is `args.len() != params.len()`, and with `<` in its place that lemma is not provable (the theorems about
   [mono_prog] programs do not depend on the test: all their argument lists are empty).  Surplus and missing arguments at every syntactic site are the mutation class `type-args`
   of the correspondence run. *)
Theorem C15_arity_definition_signature : forall p d t, prog_names_ok p = true -> In d (fdefs (fpdecls p)) ->
  In t (fdret d :: map fbty (fdctx d)) -> bad_arity (tdecls (fpdecls p)) t -> exists e, check p = CErr e.
Proof. exact arity_def_signature. Qed.
Print Assumptions C15_arity_definition_signature.
Theorem C15_arity_let_annotation : forall p d x vty a b r, prog_names_ok p = true -> In d (fdefs (fpdecls p)) ->
  occurs (FLet x vty a b r) (fdbody d) -> bad_arity (tdecls (fpdecls p)) vty -> exists e, check p = CErr e.
Proof. exact arity_let_annotation. Qed.
Print Assumptions C15_arity_let_annotation.
Theorem C15_arity_destructor : forall p d s k targs args r, prog_names_ok p = true -> In d (fdefs (fpdecls p)) ->
  occurs (FDtor s k targs args r) (fdbody d) ->
  (forall td sg, In td (tdecls (fpdecls p)) -> find_xsig td k = Some sg -> List.length targs <> List.length (td_params td))
  \/ (exists t, In t targs /\ bad_arity (tdecls (fpdecls p)) t) ->
  exists e, check p = CErr e.
Proof. exact arity_destructor. Qed.
Print Assumptions C15_arity_destructor.
Theorem C15_arity_case : forall p d s targs c0 cls r, prog_names_ok p = true -> In d (fdefs (fpdecls p)) ->
  occurs (FCase s targs (c0 :: cls) r) (fdbody d) ->
  (forall td sg, In td (tdecls (fpdecls p)) -> find_xsig td (clause_xtor c0) = Some sg -> List.length targs <> List.length (td_params td))
  \/ (exists t, In t targs /\ bad_arity (tdecls (fpdecls p)) t) ->
  exists e, check p = CErr e.
Proof. exact arity_case. Qed.
Print Assumptions C15_arity_case.
(* constructor and `new` carry no type arguments of their own: the arguments are those of the type they are
   checked against.  In every state the checker can be in ([tables], [pinv]: established by build_symbol_table,
   preserved by every step) the check against a declared type with a wrong number of arguments fails. *)
Theorem C15_arity_constructor : forall ts fs, poly_world ts fs -> forall eager st ctx x args r n targs td,
  tables ts fs st -> pinv ts st -> ctx_names_ok ctx = true ->
  term_names_ok (FCtor x args r) = true -> ty_names_ok (FDecl n targs) = true ->
  find_type ts n = Some td -> List.length targs <> List.length (td_params td) ->
  exists e, check_term_gen eager (FCtor x args r) st ctx (FDecl n targs) = CErr e.
Proof. exact arity_constructor. Qed.
Print Assumptions C15_arity_constructor.
Theorem C15_arity_new : forall ts fs, poly_world ts fs -> forall eager st ctx cls r n targs td,
  tables ts fs st -> pinv ts st -> ctx_names_ok ctx = true ->
  term_names_ok (FNew cls r) = true -> ty_names_ok (FDecl n targs) = true ->
  find_type ts n = Some td -> List.length targs <> List.length (td_params td) ->
  exists e, check_term_gen eager (FNew cls r) st ctx (FDecl n targs) = CErr e.
Proof. exact arity_new. Qed.
Print Assumptions C15_arity_new.
(* Ty::check itself *)
Theorem C15_arity_ty_check : forall ts fs, poly_world ts fs -> forall st t,
  tables ts fs st -> pinv ts st -> ty_names_ok t = true -> bad_arity ts t -> exists e, ty_check t st = CErr e.
Proof. exact arity_ty_check. Qed.
Print Assumptions C15_arity_ty_check.
(* the types written in data/codata declarations: the SPECIFICATION rejects, for all programs ... *)
Theorem C15_reject_wrong_type_argument_count_decl_field : forall p td s t,
  In td (tdecls (fpdecls p)) -> In s (td_xtors td) ->
  (In t (map fbty (xs_args s)) \/ xs_ret s = Some t) ->
  bad_arity_in_decl (tdecls (fpdecls p)) (td_params td) t -> has_type_b p = false.
Proof. exact reject_wrong_type_argument_count_decl_field. Qed.
Print Assumptions C15_reject_wrong_type_argument_count_decl_field.
(* ... and since fix eb42971 so does the checker, for all programs (no guard at all) ... *)
Theorem C15_arity_declaration_field : forall p td s t, In td (tdecls (fpdecls p)) -> In s (td_xtors td) ->
  (In t (map fbty (xs_args s)) \/ xs_ret s = Some t) ->
  bad_arity_in_decl (tdecls (fpdecls p)) (td_params td) t -> exists e, check p = CErr e.
Proof. exact arity_decl_field. Qed.
Print Assumptions C15_arity_declaration_field.
(* ... regression: the checker before that fix did not (witness `data Foo { C(x: List) }`) *)
Theorem C15_regression_old_arity_declaration_field_refuted :
  ~ (forall p td s t, prog_names_ok p = true -> In td (tdecls (fpdecls p)) -> In s (td_xtors td) ->
       (In t (map fbty (xs_args s)) \/ xs_ret s = Some t) ->
       bad_arity_in_decl (tdecls (fpdecls p)) (td_params td) t -> exists e, old_check_decls p = CErr e).
Proof. exact old_arity_decl_field_refuted. Qed.
Print Assumptions C15_regression_old_arity_declaration_field_refuted.
(* satisfiable: surplus / missing / nested wrong applications at a signature, a let, a destructor, a case *)
Example C15_arity_examples :
  check p_arity_sig = CErr EWrongNumberOfTypeArguments /\ check p_arity_let = CErr EWrongNumberOfTypeArguments
  /\ check p_arity_dtor = CErr EWrongNumberOfTypeArguments /\ check p_arity_case = CErr EWrongNumberOfTypeArguments
  /\ prog_names_ok p_arity_sig = true /\ prog_names_ok p_arity_let = true
  /\ prog_names_ok p_arity_dtor = true /\ prog_names_ok p_arity_case = true.
Proof. exact arity_examples. Qed.
Print Assumptions C15_arity_examples.

(* Scopes (the seeded change `scope leak between clauses` is what these statements exclude).
   Model side: the context in which the body of a case / new clause is checked is EXACTLY the context of the
   case / new term followed by that clause's own binders - no sibling's binder, whatever the declaration order of
   the xtors.  [clause_checked_in ctx pcls c']: c' stems from a clause of pcls with the same xtor and binder names,
   its annotated context binds exactly these names, and its body is the result of that clause's checker run in
   `ctx ++ clause_ctx c'`.  A model that followed a checker keeping ONE growing context for all clauses could not
   prove these (nor soundness). *)
Theorem C15_clause_context_exact : forall is_case sfx T xtors pcls st ctx cls' leftover st',
  check_clauses is_case sfx T xtors pcls st ctx = COk (cls', leftover, st') ->
  Forall (clause_checked_in ctx pcls) cls'.
Proof. exact check_clauses_context_exact. Qed.
Print Assumptions C15_clause_context_exact.
Theorem C15_case_clause_context_exact : forall eager s targs cls r st ctx T s' targs' cls' r' st',
  check_term_gen eager (FCase s targs cls r) st ctx T = COk (FCase s' targs' cls' r', st') ->
  Forall (body_checked_in eager ctx cls) cls'.
Proof. exact case_clause_context_exact. Qed.
Print Assumptions C15_case_clause_context_exact.
Theorem C15_new_clause_context_exact : forall eager cls r st ctx T cls' r' st',
  check_term_gen eager (FNew cls r) st ctx T = COk (FNew cls' r', st') ->
  Forall (body_checked_in eager ctx cls) cls'.
Proof. exact new_clause_context_exact. Qed.
Print Assumptions C15_new_clause_context_exact.
(* A name used where it is NOT in scope - [occ_sc s sc t]: s occurs in t and sc are exactly the names bound on the
   path from the root of t to s (a let variable only in its body, a label only in its body, a clause's binders only
   in that clause's body, nothing in a scrutinee or bound term); [use_of x s]: s is the variable x or `goto x` - is
   rejected by the rules for all programs and sites, whatever ELSE in the definition binds the name (a sibling
   clause, an enclosing term's other branch, ...): the mutation classes `scope-leak` and `scope-esc` ... *)
Theorem C15_reject_scope_leak : forall p d x s sc, In d (fdefs (fpdecls p)) ->
  use_of x s -> occ_sc s sc (fdbody d) -> ~ In x sc -> ~ In x (map fbvar (fdctx d)) ->
  has_type_b p = false.
Proof. exact reject_scope_leak. Qed.
Print Assumptions C15_reject_scope_leak.
(* ... and by the checker *)
Theorem C15_check_rejects_scope_leak : forall p d x s sc, prog_names_ok p = true -> In d (fdefs (fpdecls p)) ->
  use_of x s -> occ_sc s sc (fdbody d) -> ~ In x sc -> ~ In x (map fbvar (fdctx d)) ->
  exists e, check p = CErr e.
Proof. exact check_rejects_scope_leak. Qed.
Print Assumptions C15_check_rejects_scope_leak.
(* the two effects of a scope leak between clauses, as witnesses: a sibling's binder is unbound (rejected), and the
   OUTER variable is what a sibling sees when another clause re-binds its name at another type (accepted) *)
Example C15_scope_witnesses :
  (check p_sibling_binder = CErr EUnboundVariable /\ has_type_b p_sibling_binder = false)
  /\ (exists d, In d (fdefs (fpdecls p_sibling_binder))
        /\ occ_sc (FVar "a" None None) ["b"%string] (fdbody d) /\ ~ In "a"%string ["b"%string] /\ ~ In "a"%string (map fbvar (fdctx d)))
  /\ (has_type_b p_outer_in_sibling = true /\ exists q, check p_outer_in_sibling = COk q).
Proof. exact (conj sibling_binder_rejected (conj sibling_binder_is_scope_leak outer_in_sibling_accepted)). Qed.
Print Assumptions C15_scope_witnesses.
