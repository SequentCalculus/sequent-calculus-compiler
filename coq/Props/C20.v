(* C20: runtime contract - arguments, printing, exit status exact for all 64-bit values.
   Only statements here; the models are in Model/Runtime.v, the proofs in Proof/RuntimeProof.v.
   `decimal v` is Coq's own conversion: bytes of NilZero.string_of_int (Z.to_int v). *)
From Coq Require Import List ZArith String DecimalString.
From SCC Require Import Generated.Constants Model.Runtime Proof.RuntimeProof.
Import ListNotations.
Open Scope Z_scope.

(* Printing.  For every signed 64-bit value print_i64 hands write() exactly the decimal representation:
   a '-' for negatives, the digits most significant first, nothing else. *)
Theorem C20_print_i64_digits :
  forall v, - 2 ^ 63 <= v < 2 ^ 63 -> bytes (print_i64 v) = decimal v.
Proof. exact print_i64_digits. Qed.
Print Assumptions C20_print_i64_digits.

(* println_i64: the same followed by one newline. *)
Theorem C20_println_i64_digits :
  forall v, - 2 ^ 63 <= v < 2 ^ 63 -> bytes (println_i64 v) = decimal v ++ [10].
Proof. exact println_i64_digits. Qed.
Print Assumptions C20_println_i64_digits.

(* Both hold whatever the uninitialised buffer contained. *)
Theorem C20_print_independent_of_buffer_contents :
  forall init v, in_i64 v -> List.length init = Z.to_nat (buf_size false) ->
    bytes (print_gen false init v) = decimal v.
Proof. exact print_i64_digits_gen. Qed.
Print Assumptions C20_print_independent_of_buffer_contents.

Theorem C20_println_independent_of_buffer_contents :
  forall init v, in_i64 v -> List.length init = Z.to_nat (buf_size true) ->
    bytes (print_gen true init v) = decimal v ++ [10].
Proof. exact println_i64_digits_gen. Qed.
Print Assumptions C20_println_independent_of_buffer_contents.

(* No store leaves the buffer of MAX_DIGITS_INT (+1) bytes (MAX_DIGITS_INT = 20 of Generated/Constants.v,
   scraped from io.c on every run), the loop ends within print_fuel = 20 iterations, `start` never goes below &buf[0], and
   exactly the bytes from `start` to the end of the buffer are written. *)
Theorem C20_print_never_overruns :
  forall line init v, - 2 ^ 63 <= v < 2 ^ 63 -> List.length init = Z.to_nat (buf_size line) ->
    let r := print_gen line init v in
    overrun r = false /\ fuel_ok r = true /\ 0 <= final_start r /\
    Z.of_nat (List.length (bytes r)) = buf_size line - final_start r.
Proof. exact print_never_overruns. Qed.
Print Assumptions C20_print_never_overruns.

(* Fuel: the digit loop terminates within 20 iterations for every 64-bit magnitude. *)
Theorem C20_print_fuel_suffices :
  forall m b start, 0 <= m < 2 ^ 64 -> digit_loop print_fuel m b start <> None.
Proof. exact print_fuel_suffices. Qed.
Print Assumptions C20_print_fuel_suffices.

(* Sanity of the specification: `decimal v` read back with Coq's parser is v. *)
Theorem C20_decimal_parses_back :
  forall v, NilZero.int_of_string (string_of_bytes (decimal v)) = Some (Z.to_int v) /\ Z.of_int (Z.to_int v) = v.
Proof. exact decimal_parses_back. Qed.
Print Assumptions C20_decimal_parses_back.

(* Arguments.  atoll on the decimal representation of an int64 returns it (domain: exactly those strings). *)
Theorem C20_atoll_decimal :
  forall v, - 2 ^ 63 <= v < 2 ^ 63 -> atoll (decimal v) = v.
Proof. exact atoll_decimal. Qed.
Print Assumptions C20_atoll_decimal.

(* The driver instantiated for n parameters calls asm_main exactly once, with the n values given in
   decimal on the command line, unchanged and in order. *)
Theorem C20_arguments_reach_main :
  forall n asm_main prog vs, List.length vs = n -> Forall in_i64 vs ->
    d_calls (driver n asm_main (prog :: map decimal vs)) = [vs].
Proof. exact arguments_reach_main. Qed.
Print Assumptions C20_arguments_reach_main.

(* A wrong number of arguments is reported (message + the NUL that sizeof includes), asm_main is not
   called, exit status 1. *)
Theorem C20_wrong_argc_reports :
  forall n asm_main argv, List.length argv <> S n ->
    let r := driver n asm_main argv in
    d_output r = error_arguments /\ d_calls r = [] /\ d_status r = 1.
Proof. exact wrong_argc_reports. Qed.
Print Assumptions C20_wrong_argc_reports.

(* Exit status.  With the right number of arguments the exit status is the low eight bits of what asm_main left in
   the return register (main returns its low 32 bits as an int; the parent sees that & 0377). *)
Theorem C20_exit_status_low8 :
  forall n asm_main argv out rax, List.length argv = S n ->
    asm_main (map atoll (firstn n (tl argv))) = (out, rax) ->
    let r := driver n asm_main argv in
    d_status r = rax mod 256 /\ d_main_returns r = i32_of_bits rax /\ d_output r = out /\ 0 <= d_status r < 256.
Proof. exact exit_status_low8. Qed.
Print Assumptions C20_exit_status_low8.

(* Register shuffles (instruction lists generated from the compiled crates).  x86-64, n <= 5 parameters: after the moves emitted by move_arguments(n), the integer register of
   parameter i holds what System V argument register i+1 held on entry. *)
Theorem C20_move_arguments_x86_ok :
  forall n moves, (n <= 5)%nat -> nth_error X86RT.move_arguments n = Some moves ->
    forall (rf : regfile) i, (i < n)%nat -> exec_moves moves rf (x86_param_reg i) = rf (x86_arg (S i)).
Proof. exact move_arguments_x86_ok. Qed.
Print Assumptions C20_move_arguments_x86_ok.

(* AArch64, n <= 7: parameter i receives X(i+1) (register X_k is the number k: `Z.of_nat k`, where x86-64 has the
   table x86_arg). *)
Theorem C20_move_arguments_a64_ok :
  forall n moves, (n <= 7)%nat -> nth_error A64RT.move_arguments n = Some moves ->
    forall (rf : regfile) i, (i < n)%nat -> exec_moves moves rf (a64_param_reg i) = rf (Z.of_nat (S i)).
Proof. exact move_arguments_a64_ok. Qed.
Print Assumptions C20_move_arguments_a64_ok.

(* The whole prologue (register saves, spill area, heap/free pointer initialisation, moves): the
   parameters and the heap pointer arrive, whatever values the other instructions write. *)
Theorem C20_setup_x86_ok :
  forall n effects, (n <= 5)%nat -> nth_error X86RT.setup_effects n = Some effects ->
    forall (rf : regfile) (havoc : nat -> Z),
      let rf' := exec_effects effects havoc 0 rf in
      (forall i, (i < n)%nat -> rf' (x86_param_reg i) = rf (x86_arg (S i))) /\ rf' X86C.HEAP = rf (x86_arg 0).
Proof. exact setup_x86_ok. Qed.
Print Assumptions C20_setup_x86_ok.

Theorem C20_setup_a64_ok :
  forall n effects, (n <= 7)%nat -> nth_error A64RT.setup_effects n = Some effects ->
    forall (rf : regfile) (havoc : nat -> Z),
      let rf' := exec_effects effects havoc 0 rf in
      (forall i, (i < n)%nat -> rf' (a64_param_reg i) = rf (Z.of_nat (S i))) /\ rf' A64C.HEAP = rf 0.
Proof. exact setup_a64_ok. Qed.
Print Assumptions C20_setup_a64_ok.

(* End to end: n <= 5 (x86-64) / n <= 7 (AArch64) int64 values given in decimal on the command line;
   if at the call the driver makes the registers are as the calling convention says (entry_regs: the
   trusted link between the C call and the assembly entry), then after the prologue the integer
   register of parameter i holds the i-th value and HEAP holds the heap pointer. *)
Theorem C20_x86_arguments_end_to_end :
  forall n vs asm_main prog effects heap (rf : regfile) havoc,
    (n <= 5)%nat -> List.length vs = n -> Forall in_i64 vs ->
    nth_error X86RT.setup_effects n = Some effects ->
    (forall args, In args (d_calls (driver n asm_main (prog :: map decimal vs))) -> entry_regs x86_arg heap args rf) ->
    let rf' := exec_effects effects havoc 0 rf in
    (forall i, (i < n)%nat -> rf' (x86_param_reg i) = nth i vs 0) /\ rf' X86C.HEAP = heap.
Proof. exact x86_arguments_end_to_end. Qed.
Print Assumptions C20_x86_arguments_end_to_end.

Theorem C20_a64_arguments_end_to_end :
  forall n vs asm_main prog effects heap (rf : regfile) havoc,
    (n <= 7)%nat -> List.length vs = n -> Forall in_i64 vs ->
    nth_error A64RT.setup_effects n = Some effects ->
    (forall args, In args (d_calls (driver n asm_main (prog :: map decimal vs))) -> entry_regs Z.of_nat heap args rf) ->
    let rf' := exec_effects effects havoc 0 rf in
    (forall i, (i < n)%nat -> rf' (a64_param_reg i) = nth i vs 0) /\ rf' A64C.HEAP = heap.
Proof. exact a64_arguments_end_to_end. Qed.
Print Assumptions C20_a64_arguments_end_to_end.

(* The transliterated move_arguments functions are the code: same lists for every supported n, panic
   beyond; supported numbers 0..5 and 0..7; number_of_arguments is passed through unchanged. *)
Theorem C20_move_arguments_model_is_code :
  (map x86_move_arguments (seq_nat 6) = map Some X86RT.move_arguments /\
   x86_move_arguments 6 = None /\ X86RT.max_main_args = 5 /\ X86RT.nargs_passed_through = [0; 1; 2; 3; 4; 5]) /\
  (map a64_move_arguments (seq_nat 8) = map Some A64RT.move_arguments /\
   a64_move_arguments 8 = None /\ A64RT.max_main_args = 7 /\ A64RT.nargs_passed_through = [0; 1; 2; 3; 4; 5; 6; 7]).
Proof. exact (conj x86_move_arguments_is_code a64_move_arguments_is_code). Qed.
Print Assumptions C20_move_arguments_model_is_code.

(* The registers named in the statements above are the code's: integer half of environment position
   i (Utils::variable_temporary), and arg(0..5) print as the System V registers, X0..X7 as AAPCS64's; the AArch64
   heap register is X0, the first argument register (last conjunct).  [seq_nat n] = [0; ..; n-1]
   (Proof/RuntimeProof.v). *)
Theorem C20_registers_are_code :
  (map x86_param_reg (seq_nat 6) = X86RT.param_int_regs /\ map a64_param_reg (seq_nat 8) = A64RT.param_int_regs) /\
  (map (fun r => nth (Z.to_nat r) X86RT.reg_names ""%string) X86C.arg_regs = sysv_arg_names /\
   map (fun r => nth r A64RT.reg_names ""%string) (seq_nat 8) = aapcs64_arg_names /\ A64C.HEAP = 0).
Proof. exact (conj param_regs_are_code arg_regs_follow_abi). Qed.
Print Assumptions C20_registers_are_code.
