(* C05: Linearization preserves semantics and makes every environment exact.
   Only statements here; models in Model/Linearize.v + Model/LinCheck.v, reference semantics in
   Sem/AxSem.v, proofs in Proof/Lin*.v.

   Reading guide
   - `prog_ok p`           : the hypotheses on the input (executable): every definition is typed in the
                             non-linear discipline (`ax_check`: every use finds its variable, by id, with
                             the expected kind and type; xtor / label signatures respected; one clause per
                             xtor in declaration order), binders are pairwise distinct and distinct from
                             the parameters, all ids are at most `max_id`.
   - `linearize p`         : the model of `Prog::linearize`, tied to the Rust code by the correspondence
                             check `lin` on every run of ./check C05.
   - `lin_check_prog q`    : the ordered linear discipline the back ends assume, as a checker;
                             `lin_wt` is the same discipline as an inductive predicate. *)
From Coq Require Import String List ZArith NArith Bool Permutation.
From SCC Require Import Base.Sexp Lang.AxSyn Sem.AxSem Model.Linearize Model.LinCheck.
From SCC Require Import Proof.LinBasics Proof.LinFbs Proof.LinFreshen Proof.LinTyping Proof.LinearizeProof.
From SCC Require Import Proof.LinMachine Proof.LinSim Proof.LinExample.
Import ListNotations.
Open Scope N_scope.

(* `TypingContext::filter_by_set`: the swap_remove loop keeps exactly the live bindings, once each *)
Theorem C05_fbs_perm : forall (c : ctx) (s : list N),
  Permutation (filter_by_set c s) (filter (keep_in s) c).
Proof. exact fbs_perm. Qed.
Print Assumptions C05_fbs_perm.

(* a kept binding whose position survives the shrinking stays at its position (so a kept prefix is
   not moved: this is what makes the "context is already right" test succeed on linear input) *)
Theorem C05_fbs_positions : forall (c : ctx) (s : list N) (i : nat) (b : binding),
  nth_error c i = Some b -> mem (idn (bvar b)) s = true -> (i < length (filter_by_set c s))%nat ->
  nth_error (filter_by_set c s) i = Some b.
Proof. exact fbs_positions. Qed.
Print Assumptions C05_fbs_positions.

(* `TypingContext::freshen`: when max_id bounds the ids of the context and of `clashes`, the ids of the
   result are pairwise distinct and none of them is in `clashes` *)
Theorem C05_freshen_nodup : forall (c : ctx) (cl : list N) (m : N) (c' : ctx) (m' : N),
  freshen c cl m = (c', m') ->
  (forall x, In x cl -> x <= m) -> (forall x, In x (ids c) -> x <= m) ->
  NoDup (ids c') /\ (forall x, In x (ids c') -> ~ In x cl).
Proof. exact freshen_nodup. Qed.
Print Assumptions C05_freshen_nodup.

(* kinds, types and names are kept position by position (same_shape, Proof/LinFreshen.v); a binding whose
   id neither clashes nor occurs earlier in the context is left as it is *)
Theorem C05_freshen_positions : forall (c : ctx) (cl : list N) (m : N) (c' : ctx) (m' : N),
  freshen c cl m = (c', m') ->
  same_shape c c' /\
  (forall i b, nth_error c i = Some b -> ~ In (idn (bvar b)) cl ->
               ~ In (idn (bvar b)) (ids (firstn i c)) -> nth_error c' i = Some b).
Proof. exact freshen_positions. Qed.
Print Assumptions C05_freshen_positions.

(* the checker of the ordered linear discipline is sound for the predicate *)
Theorem C05_lin_check_sound : forall (S : sigs) (s : stmt) (c : ctx),
  lin_check S c s = true -> lin_wt S c s.
Proof. exact lin_check_sound. Qed.
Print Assumptions C05_lin_check_sound.

(* exact environments: the output of linearization passes the checker of the ordered linear discipline;
   all nine statement forms, Create included *)
Theorem C05_linearize_exact : forall p : prog,
  prog_ok p = true -> lin_check_prog (linearize p) = true.
Proof. exact linearize_exact. Qed.
Print Assumptions C05_linearize_exact.

Theorem C05_linearize_exact_wt : forall p : prog,
  prog_ok p = true ->
  Forall (fun d => lin_wt (sigs_of (linearize p)) (dctx d) (dbody d)) (pdefs (linearize p)).
Proof. exact linearize_exact_wt. Qed.
Print Assumptions C05_linearize_exact_wt.

(* the signatures (labels with parameter lists, type declarations) are untouched, so the
   discipline is stated against the same declarations before and after *)
Theorem C05_linearize_same_signatures : forall p : prog,
  prog_ok p = true -> sigs_of (linearize p) = sigs_of p.
Proof. exact sigs_of_linearize. Qed.
Print Assumptions C05_linearize_same_signatures.

(* the operands of op / print / ifc / exit are in the environment passed on to the continuation *)
Theorem C05_linearize_keeps_operands : forall p : prog,
  prog_ok p = true ->
  forallb (fun d => ops_kept (dctx d) (dbody d)) (pdefs (linearize p)) = true.
Proof. exact linearize_keeps_operands. Qed.
Print Assumptions C05_linearize_keeps_operands.

(* binders stay unique: per definition, name and parameters are kept, the binders other than the targets of
   inserted substitutions (binders_ns) are literally those of the input, pairwise distinct and distinct
   from the parameters; every id bound in the output is at most the output's max_id, which is at least the
   input's *)
Theorem C05_linearize_unique : forall p : prog,
  prog_ok p = true ->
  pmax p <= pmax (linearize p) /\
  Forall2 (fun d d' =>
             dname d' = dname d /\ dctx d' = dctx d /\
             binders_ns (dbody d') = binders (dbody d) /\
             NoDup (ids (dctx d') ++ binders_ns (dbody d')) /\
             (forall x, In x (binders (dbody d')) -> x <= pmax (linearize p)))
          (pdefs p) (pdefs (linearize p)).
Proof. exact linearize_unique. Qed.
Print Assumptions C05_linearize_unique.

(* Semantics preserved: forward simulation from the named machine (environments are
   finite maps, the reading of programs before the pass) to the linear machine (environments are
   lists handled positionally, the reading the back ends implement).  Every run of the input that
   ends with `exit` or in undefined arithmetic (division by zero, min_int / -1) is reproduced by the
   linearized program with the same prints in the same order and the same outcome, for every
   sufficiently large amount of fuel.  All statement forms, closures and the renaming done by
   Create included.  Not covered: runs of the input that get stuck (not possible for well-typed
   programs if the named machine is type-sound - not proved here) and divergence. *)
Theorem C05_linearize_preserves : forall p : prog,
  prog_ok p = true ->
  forall (args : list Z) (n : nat) (o : obs),
    run_named n p args = o ->
    ((exists z, snd o = OExit z) \/ (exists w, snd o = OUndef w)) ->
    exists n', forall k, run_linear (n' + k) (linearize p) args = o.
Proof. exact linearize_preserves_stable. Qed.
Print Assumptions C05_linearize_preserves.

(* The hypotheses are satisfiable and the conclusions are not vacuous: the program of
   Proof/LinExample.v (closure capturing two of four parameters, switch on a live list, nested
   continuation closure, call with a duplicated argument) *)
Example C05_example_hypotheses : prog_ok ex_prog = true.
Proof. vm_compute. reflexivity. Qed.
Example C05_example_input_not_linear : lin_check_prog ex_prog = false.
Proof. vm_compute. reflexivity. Qed.
Example C05_example_output_linear : lin_check_prog (linearize ex_prog) = true.
Proof. exact (linearize_exact ex_prog C05_example_hypotheses). Qed.
Example C05_example_fresh_ids : (pmax ex_prog, pmax (linearize ex_prog)) = (27, 30).
Proof. vm_compute. reflexivity. Qed.
Example C05_example_behaviour :
  run_named 100 ex_prog [5%Z; 7%Z] = ([(true, 22%Z)], OExit 22) /\
  run_linear 100 (linearize ex_prog) [5%Z; 7%Z] = ([(true, 22%Z)], OExit 22) /\
  snd (run_linear 100 ex_prog [5%Z; 7%Z]) = OStuck "create-no-env"%string.
Proof. vm_compute. repeat split. Qed.
