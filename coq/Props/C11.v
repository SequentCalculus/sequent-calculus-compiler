(* C11: explicit substitutions are compiled as simultaneous assignments.  Only statements.
   Generic part: Model/ParMoves.v, Proof/SubstGraph.v, SubstBackends.v.  Per back end, on its ISA semantics, the
   property for a whole `Substitute re (Call l args)`: C11_x86_/C11_a64_/C11_rv_substitute_simultaneous
   (Proof/X86Subst.v, A64Subst.v, RVSubst.v); for other continuations see X86Subst.x86_substitute_core. *)
From Coq Require Import List Bool.
From SCC Require Import Model.ParMoves.

(* The code emitted by the generic parallel-move algorithm (spanning forest, depth-first emission,
   one saved value per cycle) performs the whole assignment simultaneously: every target ends up
   with the initial value of its source and every temporary that is no target is unchanged - for
   every move graph in which each target has at most one source (cycles, chains, fan-out
   included), every initial contents and every value type. *)
Theorem C11_parallel_moves_simultaneous :
  forall (T : Type) (eqb : T -> T -> bool) (eqb_spec : forall a b, reflect (a = b) (eqb a b)) (V : Type)
         (fuel : nat) (A : amap T) (is : list (pinstr T)) (st0 : T -> V) (sc0 : V),
    indeg1 T eqb A -> nodup_targets T eqb A ->
    parallel_moves T eqb fuel A = Some is ->
    let c' := exec T eqb V is (st0, sc0) in
    (forall a b, edge T eqb A a b -> fst c' b = st0 a) /\
    (forall u, (forall a, ~ edge T eqb A a u) -> fst c' u = st0 u).
Proof. exact parallel_moves_correct. Qed.
Print Assumptions C11_parallel_moves_simultaneous.

(* The algorithm never runs out of fuel when called with the number of targets plus two, i.e. the
   Rust recursion terminates on every such graph. *)
Theorem C11_parallel_moves_terminates :
  forall (T : Type) (eqb : T -> T -> bool) (eqb_spec : forall a b, reflect (a = b) (eqb a b)) (A : amap T),
    indeg1 T eqb A -> parallel_moves T eqb (length (all_targets T A) + 2) A <> None.
Proof. exact parallel_moves_terminates. Qed.
Print Assumptions C11_parallel_moves_terminates.

(* ======================================================================================== *)
(* x86-64: the same statement about the INSTRUCTIONS, on the ISA semantics of Sem/X86Sem.v    *)
(* ======================================================================================== *)
From Coq Require Import ZArith NArith String FMapPositive Permutation Sorted.
From SCC Require Import Lang.AxSyn Model.Backend Model.X86 Sem.X86Sem Proof.X86State Proof.X86Sel Proof.X86Exec
     Proof.X86MemSubst Proof.X86ParMoves Proof.SubstGraph Proof.X86Subst.
Local Open Scope Z_scope.

(* (i) The code `parallel_moves_code x86_backend A` (x_mov / x_store_temporary / x_restore_temporary
   chosen by x_contains_spill_edge), run as straight-line code from ANY ISA state with a valid spill
   frame, for ANY assignment map A with in-degree <= 1 over variable temporaries (registers other
   than rsp and rcx, spill slots other than the reserved slot 0): every target location holds the
   initial value of its source, every other variable location is unchanged, and heap, output, flags,
   rsp and the stack outside the spill area are unchanged (only rcx and spill slot 0 may change). *)
Theorem C11_x86_parallel_moves_simultaneous :
  forall (im : image) (A : amap xtemp) (code : list xcode) (s : xstate) (sp : Z),
    indeg1 xtemp (teqb x86_backend) A -> nodup_targets xtemp (teqb x86_backend) A ->
    (forall t, In t (map fst A) \/ In t (all_targets xtemp A) -> var_temp t) ->
    parallel_moves_code x86_backend A = Ok code ->
    frame_ok s sp ->
    exists s', exec_straight im code s = Some s' /\
      (forall a b, edge xtemp (teqb x86_backend) A a b -> lget s' sp b = lget s sp a) /\
      (forall u, var_temp u -> (forall a, ~ edge xtemp (teqb x86_backend) A a u) -> lget s' sp u = lget s sp u) /\
      frame_ok s' sp /\ same_frame s s' sp.
Proof. exact x86_parallel_moves_ok. Qed.
Print Assumptions C11_x86_parallel_moves_simultaneous.

Theorem C11_x86_parallel_moves_total :
  forall A : amap xtemp, indeg1 xtemp (teqb x86_backend) A -> exists code, parallel_moves_code x86_backend A = Ok code.
Proof. exact x86_parallel_moves_total. Qed.
Print Assumptions C11_x86_parallel_moves_total.

(* the key fact about the model of axcut2x86_64::parallel_moves::contains_spill_edge: when it
   answers false, no move of the root goes from a spill slot to a spill slot, so rcx (the staging
   register of such moves) is free to hold the value saved for the cycle *)
Theorem C11_x86_spill_edge_sound :
  forall (k : xtemp) (cs : list (tree xtemp)),
    x_contains_spill_edge (StartNode xtemp k cs) = false ->
    Forall (fun i => match i with Mov _ d s => is_spill d && is_spill s = false | _ => True end)
           (root_moves xtemp (StartNode xtemp k cs)).
Proof. exact root_spill_free. Qed.
Print Assumptions C11_x86_spill_edge_sound.

(* (ii) Every Substitute the compiler emits meets the hypotheses of (i): for a context with pairwise
   distinct ids and pairwise distinct new ids, the map built by `connections (transpose re ctx)` has
   in-degree <= 1, duplicate-free target sets and strictly increasing keys (any back end whose
   Temporary order is a strict total order and whose numbering is injective), and its edges are
   exactly old variable -> the new variables it is assigned to, per temporary. *)
Theorem C11_substitute_graph_indeg1 :
  forall (Code Temp : Type) (B : backend Code Temp), backend_ok B ->
  forall (ctx : ctx) (re : list (binding * ident)) (am : amap Temp),
    NoDup (ids ctx) -> NoDup (new_ids re) ->
    connections B (transpose re ctx) ctx (map fst re) = Ok am ->
    indeg1 Temp (teqb B) am /\ nodup_targets Temp (teqb B) am /\
    StronglySorted (fun a b => b_tcompare B a b = Datatypes.Lt) (map fst am) /\
    (forall a, In a (map fst am) -> exists i bi n, nth_error ctx i = Some bi /\ (n = Snd \/ bchi bi <> Ext) /\ tpos B n i = Ok a).
Proof. intros Code Temp B OK. exact (transpose_connections_indeg1 B OK). Qed.
Print Assumptions C11_substitute_graph_indeg1.

Theorem C11_substitute_graph_edges :
  forall (Code Temp : Type) (B : backend Code Temp), backend_ok B ->
  forall (ctx : ctx) (re : list (binding * ident)) (am : amap Temp),
    NoDup (ids ctx) -> NoDup (new_ids re) ->
    connections B (transpose re ctx) ctx (map fst re) = Ok am ->
    forall a b, edge Temp (teqb B) am a b <->
      exists i j bi pj n, nth_error ctx i = Some bi /\ nth_error re j = Some pj /\
        idn (snd pj) = idn (bvar bi) /\ (n = Snd \/ bchi bi <> Ext) /\ tpos B n i = Ok a /\ tpos B n j = Ok b.
Proof. intros Code Temp B OK. exact (connections_edges B OK). Qed.
Print Assumptions C11_substitute_graph_edges.

Theorem C11_x86_backend_ok : backend_ok x86_backend.
Proof. exact x86_backend_ok. Qed.
Print Assumptions C11_x86_backend_ok.

(* (iii, generic part) Reference counts: `code_weakening_contraction` emits exactly one abstract
   operation per object (non-Ext) variable of the context - erase for 0 targets, nothing for 1,
   share (k-1) for k >= 2 - each variable once (a permutation of the object bindings), in the order
   of binding_compare (the BTreeMap order), on the first temporary of the variable. *)
Theorem C11_weakening_contraction_counts :
  forall (Code Temp : Type) (B : backend Code Temp) (ctx : ctx) (re : list (binding * ident)) (lc : N) (code : list Code) (lc' : N),
    NoDup (ids ctx) ->
    code_weakening_contraction B (transpose re ctx) ctx lc = Ok (code, lc') ->
    exists order : list (nat * binding),
      Permutation (map snd order) (filter is_obj ctx) /\
      StronglySorted (fun x y => binding_compare (snd x) (snd y) = Datatypes.Lt) order /\
      (forall i b, In (i, b) order -> nth_error ctx i = Some b) /\
      exists ops, Forall2 (fun ib o => exists t, tpos B Fst (fst ib) = Ok t /\ o = rc_op_for t (count_targets re (snd ib))) order ops /\
                  (code, lc') = emit_rc B (List.concat ops) lc.
Proof. intros Code Temp B. exact (weakening_contraction_counts B). Qed.
Print Assumptions C11_weakening_contraction_counts.

(* (iii, x86-64 part) meaning of the two operations, for a block pointer p in a register or a spill slot,
   inside any image that contains the code with its own labels: null -> no effect; share n -> header
   += n; erase -> header = 0: the block is pushed on the deferred-free list (header := FREE,
   FREE := p), else header -= 1.  Registers other than rcx (and FREE for erase), the stack and the
   output are unchanged. *)
Theorem C11_x86_share_meaning :
  forall im pc s sp t n lc p f,
    let code := fst (x_share_block_n t n lc) in
    code_at im pc code -> labels_at im pc code ->
    frame_ok s sp -> loc_ok t -> t <> XR TEMP ->
    lget s sp t = Some p -> (p = 0 \/ block_ok p) -> fits32 (Z.of_N n) = true ->
    rget s FREE = Some f ->
    exists s', exec_to im pc s (padd pc (List.length code)) s' /\
               (heap s', f) = share_h p (Z.of_N n) (heap s, f) /\
               (forall r, r <> TEMP -> rget s' r = rget s r) /\
               stack s' = stack s /\ out s' = out s.
Proof. exact x86_share_ok. Qed.
Print Assumptions C11_x86_share_meaning.

Theorem C11_x86_erase_meaning :
  forall im pc s sp t lc p f,
    let code := fst (x_erase_block t lc) in
    code_at im pc code -> labels_at im pc code ->
    frame_ok s sp -> loc_ok t -> t <> XR TEMP -> t <> XR FREE ->
    lget s sp t = Some p -> (p = 0 \/ block_ok p) ->
    rget s FREE = Some f ->
    exists s' f', exec_to im pc s (padd pc (List.length code)) s' /\
               rget s' FREE = Some f' /\
               (heap s', f') = erase_h p (heap s, f) /\
               (forall r, r <> TEMP -> r <> FREE -> rget s' r = rget s r) /\
               stack s' = stack s /\ out s' = out s.
Proof. exact x86_erase_ok. Qed.
Print Assumptions C11_x86_erase_meaning.

(* (iv) THE PROPERTY on x86-64.  For every explicit substitution `Substitute re (Call l args)` in a
   context with pairwise distinct ids and pairwise distinct new ids - any assignment of old to new
   variables, any mix of integer and object variables, any placement across registers and spill
   slots (whatever temporary_from_position hands out) - whose code the model emits, embedded in any
   program image with its own labels, from every ISA state with a valid spill frame in which FREE
   is defined and every object variable holds null or an 8-aligned heap address:
   control arrives at the final `jmp l_`, in a state where
   - every new variable's temporaries hold what its source's held before (ONE simultaneous
     assignment: all values are read from the initial state);
   - (heap, FREE) is the result of applying, for each object variable exactly once, with k = its
     number of targets: erase (k = 0: header 0 -> pushed on the deferred-free list, else header-1),
     nothing (k = 1), header += k-1 (k >= 2) - to the block its first temporary pointed to; no
     other heap word is written (count_h only ever adds header keys);
   - nothing else changes: variable locations outside the new context, the HEAP register, rsp, the
     output and the stack outside the spill area (rcx, the flags and spill slot 0 are scratch).
      The model is tied to the Rust code by the correspondence check, not by proof; the statement is also CHECKED
   on the emitted instructions (m,n <= 5, all kinds and window offsets; Model/SubstGen.v). *)
Theorem C11_x86_substitute_simultaneous :
  forall im pc types ctx re l args lc code lc' s sp f,
    NoDup (ids ctx) -> NoDup (new_ids re) ->
    Z.of_nat (List.length re) <= 2147483647 ->
    code_statement x86_backend types (Substitute re (Call l args)) ctx lc = Ok (code, lc') ->
    code_at im pc code -> labels_at im pc code ->
    frame_ok s sp -> rget s FREE = Some f ->
    (forall i b t, nth_error ctx i = Some b -> is_obj b = true -> tpos x86_backend Fst i = Ok t ->
       exists p, lget s sp t = Some p /\ (p = 0 \/ block_ok p)) ->
    exists (s' : xstate) (f' : Z) (order : list (nat * binding)) (ptr : nat -> Z),
      exec_to im pc s (padd pc (List.length code - 1)) s' /\
      nth_error code (List.length code - 1) = Some (JMPL (show_ident l +++ "_")) /\
      (forall i j bi pj n a b, nth_error ctx i = Some bi -> nth_error re j = Some pj -> idn (snd pj) = idn (bvar bi) ->
         (n = Snd \/ bchi bi <> Ext) -> tpos x86_backend n i = Ok a -> tpos x86_backend n j = Ok b ->
         lget s' sp b = lget s sp a) /\
      Permutation (map snd order) (filter is_obj ctx) /\
      (forall i b, In (i, b) order -> nth_error ctx i = Some b /\
                                      exists t, tpos x86_backend Fst i = Ok t /\ lget s sp t = Some (ptr i)) /\
      rget s' FREE = Some f' /\
      (heap s', f') = fold_left (fun hf ib => count_h (ptr (fst ib)) (count_targets re (snd ib)) hf) order (heap s, f) /\
      (forall u, var_temp u -> u <> XR FREE -> (forall j n, tpos x86_backend n j = Ok u -> (List.length re <= j)%nat) ->
                 lget s' sp u = lget s sp u) /\
      rget s' HEAP = rget s HEAP /\ frame_ok s' sp /\ out s' = out s /\
      (forall k, (forall p, slot_ok p -> k <> key (slot_addr sp p)) -> PM.find k (stack s') = PM.find k (stack s)).
Proof. exact x86_substitute_ok. Qed.
Print Assumptions C11_x86_substitute_simultaneous.

(* AArch64 and RISC-V satisfy `backend_ok` too, so (ii) and (iii, generic part) hold for their models *)
From SCC Require Model.A64 Model.RV Proof.SubstBackends.
Theorem C11_a64_backend_ok : backend_ok A64.a64_backend.
Proof. exact SubstBackends.a64_backend_ok. Qed.
Print Assumptions C11_a64_backend_ok.
Theorem C11_rv_backend_ok : backend_ok RV.rv_backend.
Proof. exact SubstBackends.rv_backend_ok. Qed.
Print Assumptions C11_rv_backend_ok.

(* ======================================================================================== *)
(* AArch64: the same statements about the INSTRUCTIONS, on the ISA semantics Sem/A64Sem.v.    *)
(* Proofs: Proof/A64PM.v (moves; also exported as C07_selection_parallel_moves),              *)
(* Proof/A64MemSubst.v (share/erase), Proof/A64Subst.v (frame of the moves, whole Substitute).*)
(* Scratch state of this back end: X2 (TEMP: the value that closes a cycle, a spilled pointer *)
(* of share/erase), X3 (TEMP2: staging register of spill-to-spill moves, the header of        *)
(* share/erase), the flags.  There is no spill-edge analysis (contains_spill_edge = false):    *)
(* two scratch registers make it unnecessary.  `operand_ok t`: t is a register Xn other than  *)
(* X2/X3 or a spill slot below SPILL_NUM - every temporary the numbering hands out is.         *)
(* ======================================================================================== *)
From SCC Require Sem.A64Sem Proof.A64State Proof.A64Sel Proof.A64PM Proof.A64Exec Proof.A64MemSubst Proof.A64Subst.

(* (i) the parallel moves: register-register, register-spill, spill-register, spill-spill through X3,
   cycles broken by one value saved in X2 - run as straight-line code from ANY state with a valid spill
   frame, for ANY assignment map with in-degree <= 1 over variable temporaries: every target holds the
   initial value of its source, every other variable location (HEAP = X0 and FREE = X1 included) is
   unchanged, and so are heap, output, flags, SP and the stack outside the spill area. *)
Theorem C11_a64_parallel_moves_simultaneous :
  forall (im : A64Sem.image) (am : amap A64.atemp) (code : list A64.acode) (s : A64Sem.astate) (sp : Z),
    indeg1 A64.atemp A64PM.a64_teqb am -> nodup_targets A64.atemp A64PM.a64_teqb am ->
    A64PM.amap_ok A64.atemp A64Sel.operand_ok am ->
    parallel_moves_code A64.a64_backend am = Ok code ->
    A64State.frame_ok s sp ->
    exists s', A64Sem.run_straight im code s = A64Sem.MOk s' /\
      (forall a b, edge A64.atemp A64PM.a64_teqb am a b -> A64State.lget s' sp b = A64State.lget s sp a) /\
      (forall u, A64Sel.operand_ok u -> (forall a, ~ edge A64.atemp A64PM.a64_teqb am a u) ->
                 A64State.lget s' sp u = A64State.lget s sp u) /\
      A64State.frame_ok s' sp /\ A64Sem.heap s' = A64Sem.heap s /\ A64Sem.out s' = A64Sem.out s /\
      A64Sem.flags s' = A64Sem.flags s /\
      (forall k, (forall p, A64State.slot_ok p -> k <> A64Sem.key (A64State.slot_addr sp p)) ->
                 A64Sem.PM.find k (A64Sem.stack s') = A64Sem.PM.find k (A64Sem.stack s)).
Proof. exact A64Subst.a64_parallel_moves_frame_ok. Qed.
Print Assumptions C11_a64_parallel_moves_simultaneous.

Theorem C11_a64_parallel_moves_total :
  forall am : amap A64.atemp, indeg1 A64.atemp A64PM.a64_teqb am -> exists code, parallel_moves_code A64.a64_backend am = Ok code.
Proof. exact A64Subst.a64_parallel_moves_total. Qed.
Print Assumptions C11_a64_parallel_moves_total.

(* (iii) AArch64 meaning of the two reference-count operations, inside any image that contains the code
   with its own labels.  The header is updated by LDR X3 / ADD|SUB X3 / STR X3; the tests are CMP #0 +
   B.EQ, i.e. on the 64-bit value (A64Exec.erase_h tests `wrap header = 0`; for a 64-bit header that is
   `header = 0`, lemma A64Exec.erase_h_in64). *)
Theorem C11_a64_share_meaning :
  forall im pc s sp t n lc p f,
    let code := fst (A64.a_share_block_n t n lc) in
    A64Exec.code_at im pc code -> A64Exec.labels_at im pc code ->
    A64State.frame_ok s sp -> A64Sel.operand_ok t ->
    A64State.lget s sp t = Some p -> (p = 0 \/ A64Exec.block_ok p) ->
    exists s', A64Exec.exec_to im pc s (A64Exec.padd pc (List.length code)) s' /\
               (A64Sem.heap s', f) = A64Exec.share_h p (Z.of_N n) (A64Sem.heap s, f) /\
               (forall r, r <> A64.TEMP -> r <> A64.TEMP2 -> A64Sem.rget s' r = A64Sem.rget s r) /\
               A64Sem.stack s' = A64Sem.stack s /\ A64Sem.out s' = A64Sem.out s.
Proof. exact A64MemSubst.a64_share_ok. Qed.
Print Assumptions C11_a64_share_meaning.

Theorem C11_a64_erase_meaning :
  forall im pc s sp t lc p f,
    let code := fst (A64.a_erase_block t lc) in
    A64Exec.code_at im pc code -> A64Exec.labels_at im pc code ->
    A64State.frame_ok s sp -> A64Sel.operand_ok t -> t <> A64.AR A64.FREE ->
    A64State.lget s sp t = Some p -> (p = 0 \/ A64Exec.block_ok p) ->
    A64Sem.rget s A64.FREE = Some f ->
    exists s' f', A64Exec.exec_to im pc s (A64Exec.padd pc (List.length code)) s' /\
               A64Sem.rget s' A64.FREE = Some f' /\
               (A64Sem.heap s', f') = A64Exec.erase_h p (A64Sem.heap s, f) /\
               (forall r, r <> A64.TEMP -> r <> A64.TEMP2 -> r <> A64.FREE -> A64Sem.rget s' r = A64Sem.rget s r) /\
               A64Sem.stack s' = A64Sem.stack s /\ A64Sem.out s' = A64Sem.out s.
Proof. exact A64MemSubst.a64_erase_ok. Qed.
Print Assumptions C11_a64_erase_meaning.

(* (iv) THE PROPERTY on AArch64, word for word the x86-64 statement (C11_x86_substitute_simultaneous)
   with X2, X3 and the flags as scratch state; no bound on the number of variables is needed (the
   increment is an ADD immediate the semantics does not range-check; its encodability is C14's matter).
   The hypotheses are satisfiable: Example A64Subst.a64_substitute_hyps_satisfiable (a swap through a
   cycle, a duplicated object, a dropped object; 26 instructions). *)
Theorem C11_a64_substitute_simultaneous :
  forall im pc types ctx re l args lc code lc' s sp f,
    NoDup (ids ctx) -> NoDup (new_ids re) ->
    code_statement A64.a64_backend types (Substitute re (Call l args)) ctx lc = Ok (code, lc') ->
    A64Exec.code_at im pc code -> A64Exec.labels_at im pc code ->
    A64State.frame_ok s sp -> A64Sem.rget s A64.FREE = Some f ->
    (forall i b t, nth_error ctx i = Some b -> is_obj b = true -> tpos A64.a64_backend Fst i = Ok t ->
       exists p, A64State.lget s sp t = Some p /\ (p = 0 \/ A64Exec.block_ok p)) ->
    exists (s' : A64Sem.astate) (f' : Z) (order : list (nat * binding)) (ptr : nat -> Z),
      A64Exec.exec_to im pc s (A64Exec.padd pc (List.length code - 1)) s' /\
      nth_error code (List.length code - 1) = Some (A64.B (show_ident l +++ "_")) /\
      (forall i j bi pj n a b, nth_error ctx i = Some bi -> nth_error re j = Some pj -> idn (snd pj) = idn (bvar bi) ->
         (n = Snd \/ bchi bi <> Ext) -> tpos A64.a64_backend n i = Ok a -> tpos A64.a64_backend n j = Ok b ->
         A64State.lget s' sp b = A64State.lget s sp a) /\
      Permutation (map snd order) (filter is_obj ctx) /\
      (forall i b, In (i, b) order -> nth_error ctx i = Some b /\
                                      exists t, tpos A64.a64_backend Fst i = Ok t /\ A64State.lget s sp t = Some (ptr i)) /\
      A64Sem.rget s' A64.FREE = Some f' /\
      (A64Sem.heap s', f') =
        fold_left (fun hf ib => A64Exec.count_h (ptr (fst ib)) (count_targets re (snd ib)) hf) order (A64Sem.heap s, f) /\
      (forall u, A64Sel.operand_ok u -> u <> A64.AR A64.FREE ->
                 (forall j n, tpos A64.a64_backend n j = Ok u -> (List.length re <= j)%nat) ->
                 A64State.lget s' sp u = A64State.lget s sp u) /\
      A64Sem.rget s' A64.HEAP = A64Sem.rget s A64.HEAP /\ A64State.frame_ok s' sp /\ A64Sem.out s' = A64Sem.out s /\
      (forall k, (forall p, A64State.slot_ok p -> k <> A64Sem.key (A64State.slot_addr sp p)) ->
                 A64Sem.PM.find k (A64Sem.stack s') = A64Sem.PM.find k (A64Sem.stack s)).
Proof. exact A64Subst.a64_substitute_ok. Qed.
Print Assumptions C11_a64_substitute_simultaneous.

(* ======================================================================================== *)
(* RISC-V: every temporary is a register (no spills); moves are MV, a cycle is broken through  *)
(* X1 (TEMP).  The code contains no stack access at all.  Execution inside an image is the     *)
(* relation RVSel.star (one step = one step of Sem/RVSem.v, C08_run_chunk_one); RVSel.placed =  *)
(* the code sits in the image with its own labels.  The heap is seen through RVSel.represents  *)
(* (words, HEAP = X2, FREE = X3) as in C08's refinement theorems for share/erase, which are    *)
(* reused here.  Proofs: Proof/RVSubst.v.                                                      *)
(* ======================================================================================== *)
From SCC Require Sem.RVSem Proof.RVSel Proof.RVSubst.

Theorem C11_rv_parallel_moves_simultaneous :
  forall (im : RVSem.image) (i : positive) (am : amap RV.rtemp) (code : list RV.rcode) (s : RVSem.rstate),
    indeg1 RV.rtemp RVSubst.rv_teqb am -> nodup_targets RV.rtemp RVSubst.rv_teqb am ->
    A64PM.amap_ok RV.rtemp RVSubst.rv_operand_ok am ->
    parallel_moves_code RV.rv_backend am = Ok code ->
    RVSel.at_code im i code ->
    exists s', RVSel.star im i s (RVSel.padd i (List.length code)) s' /\
      RVSem.heap s' = RVSem.heap s /\ RVSem.hw s' = RVSem.hw s /\
      (forall a b, edge RV.rtemp RVSubst.rv_teqb am a b -> RVSem.rget s' b = RVSem.rget s a) /\
      (forall u, RVSubst.rv_operand_ok u -> (forall a, ~ edge RV.rtemp RVSubst.rv_teqb am a u) -> RVSem.rget s' u = RVSem.rget s u).
Proof. exact RVSubst.rv_parallel_moves_ok. Qed.
Print Assumptions C11_rv_parallel_moves_simultaneous.

Theorem C11_rv_parallel_moves_total :
  forall am : amap RV.rtemp, indeg1 RV.rtemp RVSubst.rv_teqb am -> exists code, parallel_moves_code RV.rv_backend am = Ok code.
Proof. exact RVSubst.rv_parallel_moves_total. Qed.
Print Assumptions C11_rv_parallel_moves_total.

(* THE PROPERTY on RISC-V.  `Z.of_nat (length re) <= 2048`: the increment k-1 of a shared object must fit
   the 12-bit immediate of ADDI, which Sem/RVSem.v checks (the back end cannot name more than 14
   variables anyway).  a_count p k: erase (k = 0), nothing (k = 1), header += k-1 (k >= 2) on the
   abstract heap of RVSel.  Satisfiable: Example RVSubst.rv_substitute_hyps_satisfiable. *)
Theorem C11_rv_substitute_simultaneous :
  forall im i types ctx re l args lc code lc' s h,
    NoDup (ids ctx) -> NoDup (new_ids re) ->
    Z.of_nat (List.length re) <= 2048 ->
    code_statement RV.rv_backend types (Substitute re (Call l args)) ctx lc = Ok (code, lc') ->
    RVSel.placed im i code ->
    RVSel.represents s h ->
    (forall k b t, nth_error ctx k = Some b -> is_obj b = true -> tpos RV.rv_backend Fst k = Ok t ->
       exists p, RVSem.rget s t = Some p /\ (p = 0 \/ RVSel.valid_addr p)) ->
    exists (s' : RVSem.rstate) (order : list (nat * binding)) (ptr : nat -> Z),
      RVSel.star im i s (RVSel.padd i (List.length code - 1)) s' /\
      nth_error code (List.length code - 1) = Some (RV.JAL RV.ZERO (show_ident l +++ "_")) /\
      (forall k j bk pj n a b, nth_error ctx k = Some bk -> nth_error re j = Some pj -> idn (snd pj) = idn (bvar bk) ->
         (n = Snd \/ bchi bk <> Ext) -> tpos RV.rv_backend n k = Ok a -> tpos RV.rv_backend n j = Ok b ->
         RVSem.rget s' b = RVSem.rget s a) /\
      Permutation (map snd order) (filter is_obj ctx) /\
      (forall k b, In (k, b) order -> nth_error ctx k = Some b /\
                                      exists t, tpos RV.rv_backend Fst k = Ok t /\ RVSem.rget s t = Some (ptr k)) /\
      RVSel.represents s' (fold_left (fun h kb => RVSubst.a_count (ptr (fst kb)) (count_targets re (snd kb)) h) order h) /\
      (forall u, u <> RV.TEMP -> u <> RV.FREE -> (forall j n, tpos RV.rv_backend n j = Ok u -> (List.length re <= j)%nat) ->
                 RVSem.rget s' u = RVSem.rget s u).
Proof. exact RVSubst.rv_substitute_ok. Qed.
Print Assumptions C11_rv_substitute_simultaneous.
