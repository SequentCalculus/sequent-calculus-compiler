(* C02: the Fun-to-Core translation preserves meaning and never captures variables.
   Only statements here; model of the translation in Model/Fun2Core.v, the guard of the preservation theorem
   in Model/Fun2CoreGuard.v, semantics in Sem/FunSem.v and Sem/CoreSem.v, proofs in the Proof/Fun2Core*.v
   files imported below.
   Two translations occur in the statements (both Model/Fun2Core.v):
     [compile_prog]            = compile_prog_gen false: the model of the code of /repo as it is;
     [compile_prog_before_fix] = compile_prog_gen true: the same translation with ALL THREE repairs of /repo
                                 switched off at once - 126604b (type of a goto target), d5d4151 (variable
                                 capture under let / case binders), f929eb7 (calls whose target is main).
   [compile_prog_before_fix] occurs only in the regression theorems named `.._before_fix` (here and in
   Props/C12.v); each of them says which defect its witness exhibits.  Every other theorem is about
   [compile_prog]. *)
From Coq Require Import List ZArith NArith String Bool.
From SCC Require Import Lang.FunSyn Lang.CoreSyn Sem.AxSem Sem.CoreSem Sem.FunSem Model.Fun2Core Proof.Fun2CoreProof Proof.Fun2CoreSim.
From SCC Require Import Proof.Fun2CoreMain Proof.Fun2CoreInv Proof.Fun2CoreRel Proof.Fun2CoreProg Proof.Fun2CoreBarendregt
     Proof.Fun2CoreExamples Proof.Fun2CoreMainCalled.
Import ListNotations.

(* ---------- the property at full strength (statements) ----------
   [fun2core_correct_statement]: for every annotated (type-checked) program inside the property's
   precondition, every terminating defined run of the source is reproduced by the Core machine on the
   translated program.  False of [compile_prog_before_fix] (C02_fun2core_capture_refuted_before_fix,
   C02_fun2core_call_to_main_refuted_before_fix); of [compile_prog] neither proved nor refuted; proved is
   C02_fun2core_correct_fragment2. *)
Definition fun2core_correct_statement : Prop :=
  forall (p : fcprog) (c : cprog) (args : list Z) (n : nat) (o : obs),
    annotated_fcprog p = true -> effect_sequenced p = true ->
    compile_prog p = Ok c ->
    run_fun n p args = o -> defined o = true ->
    exists m, run_core m c args = o.

(* the guarded form: binders of each definition pairwise distinct and distinct from its parameters
   ([barendregt]).  Neither proved nor refuted; C02_fun2core_guarded_statement_refuted_before_fix refutes it
   for [compile_prog_before_fix] only, C02_fun2core_correct_fragment2_barendregt proves it inside [frag_prog]. *)
Definition fun2core_correct_guarded_statement : Prop :=
  forall (p : fcprog) (c : cprog) (args : list Z) (n : nat) (o : obs),
    annotated_fcprog p = true -> effect_sequenced p = true ->
    barendregt p = true ->
    compile_prog p = Ok c ->
    run_fun n p args = o -> defined o = true ->
    exists m, run_core m c args = o.

(* ---------- variable capture (repaired in /repo by fix d5d4151): regression statement ----------
   [compile_prog_before_fix] places the continuation it is given UNDER the binder of a `let` / the pattern
   binders of a `case` even when the continuation mentions a variable of that name, which is thereby captured.
   Witness corpus/fun/capture1.sc (modelrun checks on every run that the value used here IS the real checker's
   output for that file): the source prints 12, the translation 14. *)
Theorem C02_fun2core_capture_refuted_before_fix :
  exists (p : fcprog) (args : list Z) (c : cprog) (n : nat),
    annotated_fcprog p = true /\ effect_sequenced p = true /\
    compile_prog_before_fix p = Ok c /\
    defined (run_fun n p args) = true /\
    run_fun n p args <> run_core n c args.
Proof. exact fun2core_capture_before_fix_lemma. Qed.
Print Assumptions C02_fun2core_capture_refuted_before_fix.
(* ... [compile_prog] names the continuation first (< mu a. [[t]]_a | c >) whenever a binder it is
   about to place above c occurs free in c: the witness runs like its source *)
Theorem C02_capture_witness_fixed :
  compile_prog capture_witness = Ok (compiled_or_empty capture_witness) /\
  run_core 200 (compiled_or_empty capture_witness) [] = run_fun 200 capture_witness [] /\
  run_fun 200 capture_witness [] = ([(true, 12%Z)], OExit 0%Z).
Proof. exact capture_witness_fixed_lemma. Qed.
Print Assumptions C02_capture_witness_fixed.

(* ---------- a call whose target is main (finding call-to-main, repaired in /repo by fix f929eb7):
   regression statements ----------
   In [compile_prog_before_fix] compile_main gives the Core definition `main` no return-continuation parameter
   (its body ends in `exit`) while every call site passes args ++ [continuation].  Witness
   corpus/fun/call_main_nontail.sc (tied to the real checker's output by modelrun): its translation is stuck
   "call-arity" on the Core machine (natively the inner main exited the process with status 7).  The witness
   satisfies [barendregt], hence C02_fun2core_guarded_statement_refuted_before_fix.
   [compile_prog]: when main is called somewhere, main is translated like any other definition (with a return
   continuation) and the program starts at a fresh label  def main<n>(params) { main(params, mu~x. exit x) }. *)
Theorem C02_fun2core_call_to_main_refuted_before_fix :
  exists (p : fcprog) (args : list Z) (c : cprog) (n : nat),
    annotated_fcprog p = true /\ effect_sequenced p = true /\ barendregt p = true /\
    shadowing_risk_prog p = false /\ calls_main_prog p = true /\
    compile_prog_before_fix p = Ok c /\
    defined (run_fun n p args) = true /\
    run_fun n p args <> run_core n c args.
Proof. exact fun2core_call_to_main_before_fix_lemma. Qed.
Print Assumptions C02_fun2core_call_to_main_refuted_before_fix.

Theorem C02_fun2core_guarded_statement_refuted_before_fix :
  ~ (forall (p : fcprog) (c : cprog) (args : list Z) (n : nat) (o : obs),
       annotated_fcprog p = true -> effect_sequenced p = true ->
       barendregt p = true ->
       compile_prog_before_fix p = Ok c ->
       run_fun n p args = o -> defined o = true ->
       exists m, run_core m c args = o).
Proof. exact fun2core_guarded_statement_refuted_before_fix_lemma. Qed.
Print Assumptions C02_fun2core_guarded_statement_refuted_before_fix.
(* ... by [compile_prog] the witness runs like the source *)
Theorem C02_call_main_witness_fixed :
  compile_prog call_main_witness = Ok (compiled_or_empty call_main_witness) /\
  run_core 200 (compiled_or_empty call_main_witness) [3%Z] = run_fun 200 call_main_witness [3%Z] /\
  run_fun 200 call_main_witness [3%Z] = ([(true, 3%Z); (true, 107%Z)], OExit 8%Z) /\
  map cdname (cpdefs (compiled_or_empty call_main_witness)) = [new_id "main0"; new_id "main"].
Proof. exact call_main_witness_fixed_lemma. Qed.
Print Assumptions C02_call_main_witness_fixed.

(* ---------- the type of a goto target (repaired in /repo by fix 126604b): regression statement ----------
   [compile_prog_before_fix] types the target covariable of `goto k (t)` with the annotation of the goto
   expression instead of k's type; typed_free_vars then misses k's binder, a lifted continuation gets a
   spurious parameter and the translated program is NOT CLOSED. *)
Theorem C02_fun2core_goto_unbound_before_fix :
  exists (p : fcprog) (args : list Z) (c : cprog) (n : nat),
    annotated_fcprog p = true /\ effect_sequenced p = true /\ shadowing_risk_prog p = false /\
    goto_type_mismatch_prog p = true /\
    compile_prog_before_fix p = Ok c /\
    cprog_closed c = false /\
    defined (run_fun n p args) = true /\
    run_fun n p args <> run_core n c args.
Proof. exact fun2core_goto_unbound_before_fix_lemma. Qed.
Print Assumptions C02_fun2core_goto_unbound_before_fix.

(* ... [compile_prog] turns the same program - corpus/fun/c02_unbound_covar.sc - into a closed Core program
   with the source's behaviour. *)
Theorem C02_goto_witness_fixed :
  compile_prog goto_witness = Ok (compiled_or_empty goto_witness) /\
  cprog_closed (compiled_or_empty goto_witness) = true /\
  run_core 200 (compiled_or_empty goto_witness) [] = run_fun 200 goto_witness [] /\
  run_fun 200 goto_witness [] = ([(true, 4%Z)], OExit 0%Z).
Proof. exact goto_witness_fixed_lemma. Qed.
Print Assumptions C02_goto_witness_fixed.

(* ---------- generated names are fresh ---------- *)
(* fresh_name(used, base) returns a name that is not in `used` and inserts exactly that name
   (the bounded search of the model always succeeds). *)
Theorem C02_fresh_name_fresh : forall used base,
  ~ In (fst (fresh_name used base)) used /\
  snd (fresh_name used base) = fst (fresh_name used base) :: used.
Proof. exact fresh_name_fresh. Qed.
Print Assumptions C02_fresh_name_fresh.

(* Whole translation, all 15 term forms: a run of compile_with_cont from state st extends used_vars
   (variables x<n> and covariables a<n> share this set) and used_labels by pairwise distinct names
   none of which was in the set before.  used_vars starts as the parameters plus all binders of the
   definition, used_labels as all definition names: generated names never coincide with user-chosen
   ones or with each other. *)
Theorem C02_translation_names_fresh : forall codata cur lg t cont st s st',
  wc codata cur lg t cont st = Ok (s, st') ->
  (exists gv, st_used_vars st' = gv ++ st_used_vars st /\ NoDup gv /\ forall x, In x gv -> ~ In x (st_used_vars st)) /\
  (exists gl, st_used_labels st' = gl ++ st_used_labels st /\ NoDup gl /\ forall x, In x gl -> ~ In x (st_used_labels st)).
Proof. exact translation_names_fresh. Qed.
Print Assumptions C02_translation_names_fresh.

(* share: the label of the lifted definition is share_<def>_<n>, was unused, and the lifted
   definition is pushed in front *)
Theorem C02_share_label_fresh : forall cur cont st k st',
  share cur cont st = Ok (k, st') ->
  exists name ctx body n,
    name = cand ("share_" ++ cur ++ "_")%string n /\
    ~ In name (st_used_labels st) /\
    st_used_labels st' = name :: st_used_labels st /\
    st_lifted st' = mkcd (new_id name) ctx body :: st_lifted st.
Proof. exact share_label_fresh. Qed.
Print Assumptions C02_share_label_fresh.

(* Definition names of the translated program are pairwise distinct whenever the source's are: user
   definitions keep their names, every lifted definition is named by its generated label, and
   generated labels never coincide with a user definition name or with another generated label, of
   the same or of any other definition (used_labels is threaded through the whole program). *)
Theorem C02_compile_prog_def_names_distinct : forall p c,
  compile_prog p = Ok c ->
  NoDup (map fdname (fcpdefs p)) ->
  NoDup (map cdname (cpdefs c)).
Proof. exact compile_prog_def_names_distinct. Qed.
Print Assumptions C02_compile_prog_def_names_distinct.

(* ---------- structure of the translation ---------- *)
(* compile_with_cont of an integer expression (literal, variable, operator, parentheses) is the cut of
   its `compile` translation against the continuation, whatever the continuation is; in particular a
   variable is translated to that variable and a literal to that literal (no administrative redex) *)
Theorem C02_wc_expression_is_cut : forall e, iexp e = true ->
  forall codata cur lg cont st sr st', wc codata cur lg e cont st = Ok (sr, st') ->
  exists ce, (forall ty, cmp codata cur lg e ty st = Ok (ce, st')) /\ sr = CCut ce CI64 cont.
Proof. exact wc_iexp. Qed.
Print Assumptions C02_wc_expression_is_cut.

(* The hygiene half of the property ("no variable is captured") has no statement of its own in this file.
   It is part of meaning preservation (a captured variable changes the run, as the capture witness shows);
   C02_fun2core_correct_fragment2 below proves preservation on its fragment WITHOUT the Barendregt condition.
   The name-level reading "every occurrence of a source variable, covariable or label in compile_prog p is
   bound by the translation of its source binder" is neither stated nor proved; proved about names are the
   three freshness theorems above. *)

(* ---------- semantic preservation, PARTIAL ----------
   Proved for programs whose `main` lies in the first-order integer fragment [islf]: literals, i64
   variables, operators, parentheses, non-codata `let` of an expression, print_i64/println_i64, exit,
   one- and two-operand conditionals (other definitions of the program are arbitrary; the fragment
   has no calls).  For these programs EVERY source run that does not run out of fuel - normal exit,
   undefined arithmetic, even an unbound variable - is reproduced exactly (output and outcome) by
   the Core machine on the model's translation; shadowing is allowed (no capture is possible here:
   bound terms are expressions).
   NOT IN [islf] (they are in the fragment of C02_fun2core_correct_fragment2 below): calls, constructors/case,
   new/destructors and by-name bindings, label/goto, `let` whose bound term is not an expression, and shared
   continuations (a conditional or case in non-tail position).
   THE HYPOTHESIS `calls_main_prog p = false`: when some OTHER definition calls main, compile_prog compiles
   main with a return continuation and starts at the entry point main0; the simulation behind this theorem
   ([islf_sim], Proof/Fun2CoreSim.v) runs main's body against a CLOSED mu~ continuation, so that case is not
   covered HERE.  C02_fun2core_correct_fragment2 covers it for programs inside prog_guard and final outcomes
   (C02_islf_main_called_witness below), not for unguarded other definitions or the stuck outcome
   `unbound variable`. *)
Theorem C02_fun2core_correct_partial :
  forall (p : fcprog) (c : cprog) (d : fdef) (args : list Z) (n : nat) (o : obs),
    compile_prog p = Ok c ->
    NoDup (map fdname (fcpdefs p)) ->
    ffind_def p "main" = Some d ->
    islf (fdbody d) = true ->
    calls_main_prog p = false ->         (* since fix f929eb7: no OTHER definition calls main (main itself has no calls) *)
    run_fun n p args = o -> snd o <> OOutOfFuel ->
    exists m, run_core m c args = o.
Proof. exact fun2core_correct_partial_lemma. Qed.
Print Assumptions C02_fun2core_correct_partial.
(* a program with main in [islf] AND called by another definition: outside the hypothesis above, inside
   prog_guard; every final source run is reproduced (by C02_fun2core_correct_fragment2) *)
Theorem C02_islf_main_called_witness :
  main_in_fragment islf_main_called_witness = true /\ calls_main_prog islf_main_called_witness = true /\
  prog_guard islf_main_called_witness = true /\ NoDup (map fdname (fcpdefs islf_main_called_witness)) /\
  compile_prog islf_main_called_witness = Ok (compiled_or_empty islf_main_called_witness) /\
  run_core 200 (compiled_or_empty islf_main_called_witness) [4%Z] = run_fun 200 islf_main_called_witness [4%Z] /\
  run_fun 200 islf_main_called_witness [4%Z] = ([(true, 5%Z)], OExit 8%Z) /\
  map cdname (cpdefs (compiled_or_empty islf_main_called_witness)) = [new_id "main0"; new_id "main"; new_id "helper"].
Proof. exact islf_main_called_witness_facts. Qed.
Print Assumptions C02_islf_main_called_witness.
Theorem C02_islf_main_called_witness_simulated : forall (c : cprog) (args : list Z) (n : nat) (o : obs),
  compile_prog islf_main_called_witness = Ok c ->
  run_fun n islf_main_called_witness args = o -> final o ->
  exists m, run_core m c args = o.
Proof. exact islf_main_called_witness_simulated. Qed.
Print Assumptions C02_islf_main_called_witness_simulated.

(* ---------- semantic preservation, fragment 2: data AND codata ----------
   A much larger fragment of term forms than [islf] of C02_fun2core_correct_partial; neither theorem contains
   the other (partial: only main must lie in its fragment, the other definitions are arbitrary, and stuck
   outcomes are compared too; here: every definition is guarded and only final outcomes are compared).  ANY
   number of definitions, each of them in the fragment, calls between them in tail and non-tail position
   (a non-tail call creates a mu~ continuation, a tail call passes the return covariable), recursion,
   conditionals and case in NON-TAIL position (the continuation is lifted to a definition
   share_<f>_<n> and called with its free variables), let with an arbitrary bound term, data types
   (constructors, case; clauses bind variables), labels and goto, labels passed to consumer parameters,
   and CODATA: `new { .. }` (closures, corecursion), destructor calls, by-name `let` and by-name
   arguments (thunks re-run at every destructor call that reaches them).

   The fragment, spelled out ([frag p t], Model/Fun2CoreGuard.v): all 15 term forms - calls whose target is `main`
   INCLUDED (then [prog_guard] asks that main has pairwise distinct parameters: the entry point passes them on
   by name) -, EXCEPT
     - a destructor call in which BOTH the scrutinee and some argument need evaluation (allowed:
       scrutinee a variable or a `new` with arbitrary data arguments; any scrutinee - calls, chained
       destructor calls, lets, .. - with arguments that are variables or literals): there the
       translation evaluates the scrutinee BEFORE the arguments, the source semantics after - the
       property's precondition "effects sequenced unambiguously" is about exactly this,
     - continuations or by-name values stored in constructor fields or passed to destructors, case
       clauses / new clauses with consumer or codata-typed parameters, calls whose argument kinds
       (chirality, data/codata) differ from the callee's parameter kinds.
   [kd p t] (the kind discipline, a consequence of typing): operands, conditions, printed values,
   scrutinees of case and constructor arguments are data; a let-bound term has the kind of its variable;
   branches / let bodies / clause bodies have the kind of the whole term; a `new` is codata and each of
   its clause bodies has the kind its destructor returns ([dkind]); EXCLUDED by it: conditionals, case
   and labels of CODATA type (their continuation would be shared at a codata type: the PDelay mechanism
   of the Core machine), goto targets and consumer arguments of codata type.
   [prog_guard p] (Model/Fun2CoreGuard.v): every definition d satisfies
     frag p (fdbody d), kd p (fdbody d)      the fragment and the kind discipline, the body has the kind of
                                             the declared return type,
     ws (compile_ctx (fdctx d)) (fdbody d)   well-scoped: every variable/covariable occurrence is in scope
                                             of a parameter or binder of the SAME kind and type
                                             annotation (what the type checker guarantees),
     and main has data-typed producer parameters and a data result.
   NO CAPTURE GUARD: binders may shadow each other and the parameters freely; neither the Barendregt
   condition nor the syntactic capture guard [nocap] (Model/Fun2CoreGuard.v) is a hypothesis.
   Conclusion: EVERY source run that ends in a final outcome ([final]: normal exit or undefined
   arithmetic; stuck and out-of-fuel runs are not compared) is reproduced, output and outcome, by the
   Core machine on the model's translation.

   Method (Proof/Fun2CoreRel.v .. Fun2CoreFLh.v): a step-indexed forward simulation between CEK and Core
   machine configurations.  Capture matters only where the continuation goes under a binder (`let`, `case`):
   there the translation goes through [guard_capture] (Model/Fun2Core.v; lemma fl_guard, Proof/Fun2CoreFLg.v).
   NOT COVERED: the exclusions listed above (frag/kd are false on them; no proof holes). *)
Theorem C02_fun2core_correct_fragment2 :
  forall (p : fcprog) (c : cprog) (args : list Z) (n : nat) (o : obs),
    compile_prog p = Ok c ->
    NoDup (map fdname (fcpdefs p)) ->
    prog_guard p = true ->
    run_fun n p args = o -> final o ->
    exists m, run_core m c args = o.
Proof. exact fun2core_correct_fragment_lemma. Qed.
Print Assumptions C02_fun2core_correct_fragment2.

(* the Barendregt condition of the property (binders of a definition pairwise distinct and distinct
   from its parameters) implies the syntactic capture guard [nocap] (Model/Fun2CoreGuard.v: wherever the
   translation places a continuation built from a term u under the binders of a term t, the binders of t are
   distinct from all names of u), for well-scoped definitions of the fragment.  [nocap] is not a hypothesis of
   any theorem; its only other occurrence is C02_guard_accepts_capture_witness (prog_guard accepts a program
   that violates it). *)
Theorem C02_barendregt_implies_capture_guard : forall p d,
  frag p (fdbody d) = true -> ws (compile_ctx (fdctx d)) (fdbody d) = true -> barendregt_def d = true ->
  nocap (fdbody d) = true.
Proof. exact barendregt_def_nocap. Qed.
Print Assumptions C02_barendregt_implies_capture_guard.

(* ... the theorem under the guard of fun2core_correct_guarded_statement plus the fragment:
   [frag_prog p]: every definition is in the fragment and well-scoped, main returns data ([frag_prog] and
   [prog_guard] are the same predicate, Model/Fun2CoreGuard.v; the proof does not use the Barendregt
   hypothesis) *)
Theorem C02_fun2core_correct_fragment2_barendregt :
  forall (p : fcprog) (c : cprog) (args : list Z) (n : nat) (o : obs),
    compile_prog p = Ok c ->
    NoDup (map fdname (fcpdefs p)) ->
    frag_prog p = true -> barendregt p = true ->
    run_fun n p args = o -> defined o = true ->
    exists m, run_core m c args = o.
Proof.
  intros p c args n o Hc Hnd Hf Hb Hr Hd.
  exact (fun2core_correct_fragment_lemma p c args n o Hc Hnd (barendregt_prog_guard p Hf Hb) Hr (defined_final o Hd)).
Qed.
Print Assumptions C02_fun2core_correct_fragment2_barendregt.

(* the hypotheses are satisfiable: five concrete multi-definition programs inside the guard, both
   machines evaluated (vm_compute), the Core side on the model's translation *)
(* 1. calls: fib (non-tail recursive calls in operand position), even/odd (mutual tail calls) *)
Example C02_fragment2_example_calls :
  prog_guard ex_calls = true /\ NoDup (map fdname (fcpdefs ex_calls)) /\
  compile_prog ex_calls = Ok (compiled_or_empty ex_calls) /\
  run_fun 3000 ex_calls [10%Z] = ([(true, 55%Z); (true, 1%Z)], OExit 0%Z) /\
  run_core 5000 (compiled_or_empty ex_calls) [10%Z] = ([(true, 55%Z); (true, 1%Z)], OExit 0%Z).
Proof. exact ex_calls_ok. Qed.
(* 2. shared continuations: a conditional as let-bound term (twice, nested let inside a branch): two
   lifted definitions share_clamp_0, share_clamp_1 (the source has two definitions, clamp and main, so
   `length (cpdefs ..) - 2` is the number of lifted definitions) *)
Example C02_fragment2_example_shared :
  prog_guard ex_shared = true /\ NoDup (map fdname (fcpdefs ex_shared)) /\
  compile_prog ex_shared = Ok (compiled_or_empty ex_shared) /\
  (2 <= List.length (cpdefs (compiled_or_empty ex_shared)) - 2)%nat /\
  run_fun 1000 ex_shared [1%Z] = ([(true, 3%Z); (true, 207%Z)], OExit 0%Z) /\
  run_core 2000 (compiled_or_empty ex_shared) [1%Z] = ([(true, 3%Z); (true, 207%Z)], OExit 0%Z).
Proof. exact ex_shared_ok. Qed.
(* 3. data: lists built recursively, summed by a recursive case, a case in non-tail position *)
Example C02_fragment2_example_data :
  prog_guard ex_data = true /\ NoDup (map fdname (fcpdefs ex_data)) /\
  compile_prog ex_data = Ok (compiled_or_empty ex_data) /\
  run_fun 2000 ex_data [6%Z] = ([(true, 21%Z); (true, 36%Z)], OExit 0%Z) /\
  run_core 4000 (compiled_or_empty ex_data) [6%Z] = ([(true, 21%Z); (true, 36%Z)], OExit 0%Z).
Proof. exact ex_data_ok. Qed.
(* 4. labels: goto out of a conditional under an operator, a label passed to a consumer parameter
   and jumped to from the callee *)
Example C02_fragment2_example_labels :
  prog_guard ex_labels = true /\ NoDup (map fdname (fcpdefs ex_labels)) /\
  compile_prog ex_labels = Ok (compiled_or_empty ex_labels) /\
  run_fun 1000 ex_labels [5%Z] = ([(true, 1042%Z); (true, 1006%Z); (true, 10%Z)], OExit 0%Z) /\
  run_core 2000 (compiled_or_empty ex_labels) [5%Z] = ([(true, 1042%Z); (true, 1006%Z); (true, 10%Z)], OExit 0%Z).
Proof. exact ex_labels_ok. Qed.

(* 5. codata: a corecursive stream (`new`), destructors on variables, chained destructors, a call as
   scrutinee, a by-name let, a by-name argument *)
Example C02_fragment2_example_codata :
  prog_guard ex_codata = true /\ NoDup (map fdname (fcpdefs ex_codata)) /\
  compile_prog ex_codata = Ok (compiled_or_empty ex_codata) /\
  run_fun 1000 ex_codata [10%Z] = ([(true, 13%Z); (true, 10%Z); (true, 12%Z); (true, 7%Z)], OExit 0%Z) /\
  run_core 2000 (compiled_or_empty ex_codata) [10%Z] = ([(true, 13%Z); (true, 10%Z); (true, 12%Z); (true, 7%Z)], OExit 0%Z).
Proof. exact ex_codata_ok. Qed.

(* the capture witness (C02_fun2core_capture_refuted_before_fix) violates [nocap] and is INSIDE the guard of
   C02_fun2core_correct_fragment2: the theorem applies to a program with shadowing binders.  So is the
   call-to-main witness (C02_fun2core_call_to_main_refuted_before_fix). *)
Theorem C02_guard_accepts_capture_witness :
  prog_guard capture_witness = true /\ NoDup (map fdname (fcpdefs capture_witness)) /\
  existsb (fun d => negb (nocap (fdbody d))) (fcpdefs capture_witness) = true /\
  shadowing_risk_prog capture_witness = true.
Proof. exact guard_accepts_capture_witness. Qed.
Print Assumptions C02_guard_accepts_capture_witness.
Theorem C02_guard_accepts_call_main_witness :
  prog_guard call_main_witness = true /\ NoDup (map fdname (fcpdefs call_main_witness)) /\
  calls_main_prog call_main_witness = true.
Proof. exact guard_accepts_call_main_witness. Qed.
Theorem C02_call_main_witness_simulated : forall (args : list Z) (n : nat) (o : obs),
  run_fun n call_main_witness args = o -> final o ->
  exists m, run_core m (compiled_or_empty call_main_witness) args = o.
Proof. exact call_main_witness_simulated. Qed.
Print Assumptions C02_call_main_witness_simulated.
(* ... hence, by the THEOREM (not by evaluation), every final source run of the capture witness is
   reproduced by the Core machine on its translation *)
Theorem C02_capture_witness_simulated : forall (args : list Z) (n : nat) (o : obs),
  run_fun n capture_witness args = o -> final o ->
  exists m, run_core m (compiled_or_empty capture_witness) args = o.
Proof. exact capture_witness_simulated. Qed.
Print Assumptions C02_capture_witness_simulated.

(* ---------- for property C19 (output size): continuations are shared, not duplicated ----------
   (the same two statements stand in Props/C19.v as C19_fun2core_ifc_shares_continuation and
   C19_fun2core_case_shares_continuation) *)
(* `if` / `case` with a continuation that is not a leaf: the continuation is lifted ONCE by `share` into the
   definition d and the branches get the same small continuation k = mu~ x. share_f_n(free variables). *)
Theorem C02_fun2core_ifc_shares_continuation : forall cur s ca cb wt we cont st r st',
  cont_is_small cont = false ->
  wc_ifc cur s ca cb wt we cont st = Ok (r, st') ->
  exists k st1 d a b t e st2 st3,
    share cur cont st = Ok (k, st1) /\
    st_lifted st1 = d :: st_lifted st /\
    (size_cstmt (cdbody d) <= size_cterm cont + 2)%N /\
    (size_cterm k = 2 + N.of_nat (List.length (cdctx d)))%N /\
    wt k st2 = Ok (t, st3) /\ we k st3 = Ok (e, st') /\
    r = CIfC (sort_of s) a b t e /\
    (size_cstmt r = 1 + size_cterm a + match b with Some b' => size_cterm b' | None => 0 end
                    + size_cstmt t + size_cstmt e)%N.
Proof. exact fun2core_ifc_shares_continuation. Qed.
Print Assumptions C02_fun2core_ifc_shares_continuation.

Theorem C02_fun2core_case_shares_continuation : forall cur wscrut sty n ccls cont st r st',
  cont_is_small cont = false -> (2 <= n)%nat ->
  wc_case cur wscrut sty n ccls cont st = Ok (r, st') ->
  exists k st1 d,
    share cur cont st = Ok (k, st1) /\
    st_lifted st1 = d :: st_lifted st /\
    (size_cstmt (cdbody d) <= size_cterm cont + 2)%N /\
    (size_cterm k = 2 + N.of_nat (List.length (cdctx d)))%N /\
    exists cls st2 ty, ccls k st1 = Ok (cls, st2) /\ wscrut (CXCase CCns cls ty) st2 = Ok (r, st').
Proof. exact fun2core_case_shares_continuation. Qed.
Print Assumptions C02_fun2core_case_shares_continuation.
