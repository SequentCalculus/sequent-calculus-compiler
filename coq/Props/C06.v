(* C06: x86-64 code generation preserves AxCut semantics.  Only statements; proofs in Proof/X86Sel.v,
   X86State.v, X86Consts.v (selection), Proof/X86Sim*.v + SimFrag.v (fragments), Proof/X86H*.v over the C09
   refinements (heap statements), Proof/X86WfAll.v, X86WfCor.v (checks on the output as theorems).
   Layers (DESIGN.md, C06): L0 AxCut linear machine -> L1 abstract back-end operations (Model/Backend.v)
   -> L2 x86-64 instructions (Model/X86.v) on Sem/X86Sem.v.
   1. L1 -> L2, instruction selection (C06_x86_..._selection): every placement of target and operands in
      registers or spill slots, every aliasing, every contents; only target, rcx and flags change.
   2. L0 -> L2 for the integer fragment and for closures without captured variables: relation `rel`, one
      theorem per statement form, C06_sim_exec / _cf, C06_codegen_simulates_int / _cf.
   3. Heap statements against the heap-instrumented machine Sem/AxHeap.v: relation `hrel`, C06_heap_bridge_...,
      C06_sim_let ... C06_sim_exec_heap, C06_codegen_simulates_partial (asm_wf, code_small as hypotheses).
   4. MAIN THEOREMS C06_codegen_simulates, C06_codegen_correct_linearized: guards on the program instead.
   Left out: divergence; programs outside the guards; runs that leave the 32 MiB heap of the ISA model
   (heap_fits, necessary: C06_allocation_without_heap_bound_refuted); non-integer entries; ann_check_prog for
   programs that are not outputs of the linearizer.  C06_codegen_correct_statement is a Definition only.
   Trusted: Sem/X86Sem.v (instructions, external print call); Model/X86.v and Model/Backend.v are tied to the
   crate by the correspondence check and by execution of the real output on the ISA model (evidence file). *)
From Coq Require Import List ZArith NArith String Bool.
From SCC Require Import Lang.AxSyn Sem.AxSem Model.Backend Model.X86 Sem.X86Sem Proof.X86State Proof.X86Sel Proof.X86Consts.
Import ListNotations.
Open Scope Z_scope.

(* all five operators, against the AxCut meaning of the operator (64-bit wrapping, truncating
   division, undefined cases excluded by `eval_op … = OpVal v`) *)
Theorem C06_x86_arith_selection :
  forall (im : image) (o : binop) (s : xstate) (sp : Z) (t s1 s2 : xtemp) (a b v : Z),
    frame_ok s sp -> div_pre t s1 s2 ->
    lget s sp s1 = Some a -> lget s sp s2 = Some b -> eval_op o a b = OpVal v ->
    exists s', exec_straight im (x_arith o t s1 s2) s = Some s' /\
               lget s' sp t = Some v /\ preserved s s' sp t.
Proof. exact x86_arith_ok. Qed.
Print Assumptions C06_x86_arith_selection.

(* add/mul also when the target aliases an operand (used by the jump-table dispatch) *)
Theorem C06_x86_commutative_selection_aliasing :
  forall (im : image) (o : aop) (s : xstate) (sp : Z) (t s1 s2 : xtemp) (a b : Z),
    o <> ASub -> frame_ok s sp -> loc_ok t -> loc_ok s1 -> loc_ok s2 ->
    t <> XR TEMP -> s1 <> XR TEMP -> s2 <> XR TEMP ->
    lget s sp s1 = Some a -> lget s sp s2 = Some b ->
    exists s', exec_straight im (op_commutative (to_register o) (to_spill o) t s1 s2) s = Some s' /\
               lget s' sp t = Some (wrap (aop_f o a b)) /\ preserved s s' sp t.
Proof. exact x86_op_commutative_ok. Qed.
Print Assumptions C06_x86_commutative_selection_aliasing.

Theorem C06_x86_mov_selection :
  forall (im : image) (s : xstate) (sp : Z) (t src : xtemp),
    frame_ok s sp -> loc_ok t -> loc_ok src -> t <> XR TEMP -> src <> XR TEMP ->
    exists s', exec_straight im (x_mov t src) s = Some s' /\
               lget s' sp t = lget s sp src /\ preserved s s' sp t.
Proof. exact x86_mov_ok. Qed.
Print Assumptions C06_x86_mov_selection.

(* every 64-bit literal into a register or a spill slot (the direct `mov qword [rsp+off], imm64`
   form is used only for sign-extended 32-bit values) *)
Theorem C06_x86_load_immediate_selection :
  forall (im : image) (s : xstate) (sp : Z) (t : xtemp) (i : Z),
    frame_ok s sp -> loc_ok t -> t <> XR TEMP ->
    exists s', exec_straight im (x_load_immediate t i) s = Some s' /\
               lget s' sp t = Some i /\ preserved s s' sp t.
Proof. exact x86_load_immediate_ok. Qed.
Print Assumptions C06_x86_load_immediate_selection.

(* comparisons: the flags hold the two operands, and the conditional jump is taken exactly when
   the AxCut comparison holds (all six sorts; two-operand and zero forms) *)
Theorem C06_x86_compare_selection :
  forall (im : image) (s : xstate) (sp : Z) (t1 t2 : xtemp) (a b : Z),
    frame_ok s sp -> loc_ok t1 -> loc_ok t2 -> t1 <> XR TEMP -> t2 <> XR TEMP ->
    lget s sp t1 = Some a -> lget s sp t2 = Some b ->
    exists s', exec_straight im (compare t1 t2) s = Some s' /\ flags s' = Some (a, b) /\
               (forall l, loc_ok l -> l <> XR TEMP -> lget s' sp l = lget s sp l) /\
               heap s' = heap s /\ out s' = out s /\ frame_ok s' sp.
Proof. exact x86_compare_ok. Qed.
Print Assumptions C06_x86_compare_selection.
Theorem C06_x86_compare_zero_selection :
  forall (im : image) (s : xstate) (sp : Z) (t : xtemp) (a : Z),
    frame_ok s sp -> loc_ok t -> lget s sp t = Some a ->
    exec_straight im (compare_immediate t 0) s = Some (set_flags s (Some (a, 0))).
Proof. exact x86_compare_zero_ok. Qed.
Print Assumptions C06_x86_compare_zero_selection.
Theorem C06_x86_conditional_jump :
  forall (im : image) (sort : ifsort) (l : string) (s : xstate) (x y : Z),
    flags s = Some (x, y) ->
    step im (jcc sort l) s = if eval_cmp sort x y then goto_label im s l else Next s.
Proof. exact x86_jcc_step. Qed.
Print Assumptions C06_x86_conditional_jump.

(* the model's address arithmetic is the crate's (values regenerated from the code) *)
Theorem C06_x86_constants_agree :
  map stack_offset [0; 1; 2; 3; 4; 5; 6; 7]%N = Generated.Constants.X86C.stack_offset_samples /\
  map (field_offset Fst) [0; 1; 2; 3]%N = Generated.Constants.X86C.field_offset_fst /\
  map (field_offset Snd) [0; 1; 2; 3]%N = Generated.Constants.X86C.field_offset_snd /\
  map jump_length [0; 1; 2; 3; 4; 5]%N = Generated.Constants.X86C.jump_length_samples.
Proof.
  exact (conj x86_stack_offset_samples (conj (proj1 x86_field_offset_samples)
          (conj (proj2 x86_field_offset_samples) x86_jump_length_samples))).
Qed.
Print Assumptions C06_x86_constants_agree.

(* Stated only, neither proved nor refuted: no typing, arity or heap-bound hypothesis.  With them:
   C06_codegen_simulates. *)
Definition C06_codegen_correct_statement : Prop :=
  forall (p : prog) (lc : N) (cs : list xcode) (n : nat) (lc' : N) (args : list Z) (fuel : nat) (o : obs),
    x86_compile p lc = Ok (cs, n, lc') ->
    run_linear fuel p args = o -> defined o = true ->
    exists outer inner, fst (run_x86 outer inner cs args) = o.


(* ======================================================================================== *)
(* Forward simulation of the generic code generator instantiated at x86-64, integer fragment *)
(* ======================================================================================== *)
From SCC Require Import Model.ParMoves Model.LinCheck Sem.X86Wf Proof.X86Exec Proof.SubstGraph Proof.X86Subst
     Proof.X86SimRel Proof.X86SimStmt Proof.X86SimPrint Proof.X86SimProg Proof.X86SimTop Proof.X86SimExample.
Open Scope list_scope.
(* THE STATE RELATION  `rel CL c e s sp`  (Proof/X86SimRel.v) between a configuration of the linear AxCut
   machine - the typing context c the generator threads and the environment e, a list of (name, value)
   by position - and an ISA state s:  rsp = sp with the whole spill area inside the stack region,
   sp = 8 (mod 16), room below sp for the pushes around a print call, rbp (deferred-free list) defined;
   e and c name the same ids in the same order, pairwise distinct; position i is represented (`vrep`) as
     integer z (binding ext i64):  the SECOND temporary of position i (register 5+2i, or spill slot 2i-10
                                   from position 6 on) holds z;
     closure without captured variables (binding cns T): first temporary = null block pointer, second
                                   temporary = a code address a with `CL a T clauses`.
   CL, what a closure's code pointer points to, is a parameter of the statement-level theorems (they never
   look inside; the program-level theorem of the integer fragment takes CL := False).
   `frame_eq s s' sp`: heap, output and every stack word outside the spill area are unchanged;
   `above_eq`: heap and every stack word at or above sp are unchanged.
   First consequence: the machine's operand lookup and the generator's `variable_temporary` meet. *)
Theorem C06_sim_rel_reads :
  forall (CL : Z -> ident -> list clause -> Prop) (c : ctx) (e : env) (s : xstate) (sp : Z) (a : ident) (x : Z),
    rel CL c e s sp -> lookup_int e a = Some x ->
    exists i b t, nth_error c i = Some b /\ idn (bvar b) = idn a /\ tpos x86_backend Snd i = Ok t /\ lget s sp t = Some x.
Proof. exact rel_lookup. Qed.
Print Assumptions C06_sim_rel_reads.

(* One theorem per statement form.  In each: ANY context c (any number of variables, so operands and
   target in registers or spill slots in every combination; operands may coincide), the hypotheses on
   the machine side are exactly the conditions under which `exec_linear` takes the step, the temporaries
   are whatever `code_statement` computed (`variable_temporary … = Ok t`), and the conclusion relates the
   state after the emitted code to the machine's next environment. *)
Theorem C06_sim_literal :
  forall (im : image) (CL : Z -> ident -> list clause -> Prop) (c : ctx) (e : env) (s : xstate) (sp : Z) (n : Z) (v : ident) (tv : xtemp),
    rel CL c e s sp -> NoDup (ids (c ++ [mkb v Ext I64])) ->
    variable_temporary x86_backend Snd (c ++ [mkb v Ext I64]) (idn v) = Ok tv ->
    exists s', exec_straight im (x_load_immediate tv n) s = Some s' /\
               rel CL (c ++ [mkb v Ext I64]) (e ++ [(v, VInt n)]) s' sp /\ frame_eq s s' sp.
Proof. exact sim_literal. Qed.
Print Assumptions C06_sim_literal.

(* all five operators; the result is the AxCut value (wrap-around for + - *, truncation for / %) *)
Theorem C06_sim_op :
  forall (im : image) (CL : Z -> ident -> list clause -> Prop) (c : ctx) (e : env) (s : xstate) (sp : Z) (a : ident) (o : binop)
         (b v : ident) (x y z : Z) (tv ta tb : xtemp),
    rel CL c e s sp -> NoDup (ids (c ++ [mkb v Ext I64])) ->
    lookup_int e a = Some x -> lookup_int e b = Some y -> eval_op o x y = OpVal z ->
    variable_temporary x86_backend Snd (c ++ [mkb v Ext I64]) (idn v) = Ok tv ->
    variable_temporary x86_backend Snd (c ++ [mkb v Ext I64]) (idn a) = Ok ta ->
    variable_temporary x86_backend Snd (c ++ [mkb v Ext I64]) (idn b) = Ok tb ->
    exists s', exec_straight im (x_arith o tv ta tb) s = Some s' /\
               rel CL (c ++ [mkb v Ext I64]) (e ++ [(v, VInt z)]) s' sp /\ frame_eq s s' sp.
Proof. exact sim_op. Qed.
Print Assumptions C06_sim_op.

(* the undefined cases (divisor 0, min_int / -1, for Div and Rem): the emitted code runs into the
   faulting idiv, which the ISA model reports with the same reason, output unchanged *)
Theorem C06_sim_op_undefined :
  forall (im : image) (CL : Z -> ident -> list clause -> Prop) (c : ctx) (e : env) (s : xstate) (sp : Z) (a : ident) (o : binop)
         (b v : ident) (x y : Z) (w : string) (tv ta tb : xtemp),
    rel CL c e s sp -> NoDup (ids (c ++ [mkb v Ext I64])) ->
    lookup_int e a = Some x -> lookup_int e b = Some y -> eval_op o x y = OpUndef w ->
    variable_temporary x86_backend Snd (c ++ [mkb v Ext I64]) (idn v) = Ok tv ->
    variable_temporary x86_backend Snd (c ++ [mkb v Ext I64]) (idn a) = Ok ta ->
    variable_temporary x86_backend Snd (c ++ [mkb v Ext I64]) (idn b) = Ok tb ->
    exists s', exec_undef im (x_arith o tv ta tb) s = Some (w, s') /\ out s' = out s.
Proof. exact sim_op_undef. Qed.
Print Assumptions C06_sim_op_undefined.
Theorem C06_sim_op_undefined_observed :
  forall (im : image) (pc : positive) (cs : list xcode) (s : xstate) (w : string) (s' : xstate),
    code_at im pc cs -> exec_undef im cs s = Some (w, s') -> finishes im pc s (finish (out s') (OUndef w)).
Proof. exact exec_undef_finishes. Qed.
Print Assumptions C06_sim_op_undefined_observed.

(* IfC, all six comparison sorts, two-operand form (b = Some _) and zero form (b = None): control reaches
   the first instruction of the branch the machine takes - the else branch right after the jump, the then
   branch right after the label - in a related state *)
Theorem C06_sim_ifc :
  forall (im : image) (CL : Z -> ident -> list clause -> Prop) (c : ctx) (e : env) (s : xstate) (sp : Z) (so : ifsort)
         (a : ident) (b : option ident) (x y : Z)
         (types : list tydecl) (thenc elsec : stmt) (lc : N) (code : list xcode) (lc' : N) (pc : positive),
    rel CL c e s sp -> lookup_int e a = Some x ->
    match b with Some b => lookup_int e b | None => Some 0 end = Some y ->
    code_statement x86_backend types (IfC so a b thenc elsec) c lc = Ok (code, lc') ->
    code_at im pc code -> labels_at_nh im pc code ->
    exists c1 c2 lc2 c3 s',
      code = c1 ++ c2 ++ [LAB (iflabel lc)] ++ c3 /\
      code_statement x86_backend types elsec c (lc + 1)%N = Ok (c2, lc2) /\
      code_statement x86_backend types thenc c lc2 = Ok (c3, lc') /\
      exec_to im pc s (if eval_cmp so x y then padd pc (List.length c1 + List.length c2 + 1)
                       else padd pc (List.length c1)) s' /\
      rel CL c e s' sp /\ frame_eq s s' sp.
Proof. exact sim_ifc. Qed.
Print Assumptions C06_sim_ifc.

(* Substitute, ANY mix of integer and closure variables, any rearrangement (drop, duplicate, permute): the
   reference-count code (one erase / share per closure variable dropped / duplicated, each skipped because
   the block pointer of a closure without captured variables is null; uses C11_x86_erase_meaning /
   C11_x86_share_meaning through x86_emit_rc_ok) followed by the parallel moves
   (C11_x86_parallel_moves_simultaneous, C11_substitute_graph_edges) leaves the machine's rearranged
   environment in the temporaries of the new context.  `has …` is the condition lin_check imposes. *)
Theorem C06_sim_substitute :
  forall (im : image) (CL : Z -> ident -> list clause -> Prop) (c : ctx) (e : env) (s : xstate) (sp : Z)
         (re : list (binding * ident)) (vs : list value) (e' : env)
         (c1 : list xcode) (lc lc1 : N) (c2 : list xcode) (pc : positive),
    rel CL c e s sp -> NoDup (new_ids re) ->
    (forall q, In q re -> has c (snd q) (bchi (fst q)) (bty (fst q)) = true) ->
    lookups e (map snd re) = Some vs -> bind (map (fun r => bvar (fst r)) re) vs = Some e' ->
    code_weakening_contraction x86_backend (transpose re c) c lc = Ok (c1, lc1) ->
    code_exchange x86_backend (transpose re c) c (map fst re) = Ok c2 ->
    code_at im pc (c1 ++ c2) -> labels_at_nh im pc (c1 ++ c2) ->
    exists s', exec_to im pc s (padd pc (List.length (c1 ++ c2))) s' /\ rel CL (map fst re) e' s' sp /\ frame_eq s s' sp.
Proof. exact sim_substitute. Qed.
Print Assumptions C06_sim_substitute.
(* in an integer context no reference-count code is emitted at all *)
Theorem C06_sim_substitute_int_no_rc :
  forall (c : ctx) (re : list (binding * ident)) (lc : N),
    ctx_int c = true -> NoDup (ids c) ->
    code_weakening_contraction x86_backend (transpose re c) c lc = Ok ([], lc).
Proof. exact cwc_ctx_int. Qed.
Print Assumptions C06_sim_substitute_int_no_rc.

(* PrintI64 on the external-call model (alignment check at the call, havoc of rax rcx rdx rsi rdi r8-r11,
   of the flags and of the stack below rsp): the printed value is the variable's, every live temporary of
   EVERY context survives - whatever registers `caller_save_registers_info` lists (one per integer, two per
   closure among the first four positions), however many of them fit into free callee-saved registers and
   however many are pushed, with or without the alignment padding; spilled variables and r12-r15 are
   untouched - and rsp is restored *)
Theorem C06_sim_print :
  forall (im : image) (CL : Z -> ident -> list clause -> Prop) (c : ctx) (e : env) (s : xstate) (sp : Z) (nl : bool)
         (v : ident) (z : Z) (tv : xtemp),
    rel CL c e s sp -> lookup_int e v = Some z ->
    variable_temporary x86_backend Snd c (idn v) = Ok tv ->
    exists s', exec_straight im (x_print nl tv c) s = Some s' /\
               rel CL c e s' sp /\ out s' = (nl, z) :: out s /\ above_eq s s' sp.
Proof. exact sim_print. Qed.
Print Assumptions C06_sim_print.
(* its core, for ANY list of distinct caller-saved registers and any first backup register >= 12 *)
Theorem C06_sim_print_save_call_restore :
  forall (im : image) (fb : N) (regs : list N) (s : xstate) (sp : Z) (nl : bool) (z : Z) (rs : N),
    (12 <= fb)%N -> Forall (fun r => (4 <= r <= 11)%N) regs -> NoDup regs ->
    frame_ok s sp -> sp mod 16 = 8 -> STACK_LIMIT + 128 <= sp ->
    rget s rs = Some z -> rs <> 0%N -> (rs < fb)%N ->
    exists s', exec_straight im (save_caller_save_registers fb regs ++ [MOV (arg 0) rs] ++ [CALL (print_name nl)]
                                 ++ restore_caller_save_registers fb regs) s = Some s' /\
      rget s' 0%N = Some sp /\
      (forall r, In r regs -> rget s' r = rget s r) /\
      (forall r, r <> 0%N -> existsb (N.eqb r) caller_saved = false -> (r < fb)%N -> rget s' r = rget s r) /\
      (forall a, sp <= a -> kget s' a = kget s a) /\
      out s' = (nl, z) :: out s /\ heap s' = heap s.
Proof. exact print_core. Qed.
Print Assumptions C06_sim_print_save_call_restore.

(* Call: the jump changes no state; the callee's context (same kinds and types position by position:
   lin_check's sig_match) relabels the same positions *)
Theorem C06_sim_call :
  forall (CL : Z -> ident -> list clause -> Prop) (c : ctx) (e : env) (st : xstate) (sp : Z) (c' : ctx) (e' : env),
    rel CL c e st sp -> NoDup (ids c') -> sig_match c c' = true ->
    bind (vars c') (map snd e) = Some e' -> rel CL c' e' st sp.
Proof. exact bind_rel. Qed.
Print Assumptions C06_sim_call.

(* Exit: the result reaches rax; from `cleanup`, with the frame the prologue built above the spill area
   (`outer_ok`), the run ends with OExit of that value: rsp and rbx rbp r12-r15 have their entry values *)
Theorem C06_sim_exit :
  forall (im : image) (CL : Z -> ident -> list clause -> Prop) (c : ctx) (e : env) (s : xstate) (sp : Z) (v : ident) (z : Z) (tv : xtemp),
    rel CL c e s sp -> lookup_int e v = Some z -> variable_temporary x86_backend Snd c (idn v) = Ok tv ->
    exists s', exec_straight im (x_mov (XR RETURN1) tv) s = Some s' /\ rget s' RETURN1 = Some z /\
               frame_ok s' sp /\ frame_eq s s' sp.
Proof. exact sim_exit_mov. Qed.
Print Assumptions C06_sim_exit.
Theorem C06_sim_epilogue :
  forall (im : image) (pcc : positive) (s : xstate) (sp : Z) (z : Z),
    code_at im pcc cleanup -> frame_ok s sp -> outer_ok s sp -> rget s RETURN1 = Some z ->
    finishes im pcc s (finish (out s) (OExit z)).
Proof. exact epilogue_ok. Qed.
Print Assumptions C06_sim_epilogue.

(* the prologue: from the entry state of a C call with up to five integer arguments, `setup` builds the
   frame and leaves argument i in the register of position i *)
Theorem C06_sim_prologue :
  forall (im : image) (args : list Z) (su : list xcode),
    setup (List.length args) = Ok su ->
    exists s, exec_straight im su (init_state args) = Some s /\
      frame_ok s sp0 /\ outer_ok s sp0 /\ out s = [] /\ (exists f, rget s FREE = Some f) /\
      (forall i, (i < List.length args)%nat -> rget s (5 + 2 * N.of_nat i)%N = Some (nth i args 0)).
Proof. exact prologue_ok. Qed.
Print Assumptions C06_sim_prologue.

(* composition: for a statement of the fragment that is linearly well-typed in its (integer) context,
   whose code sits in an image where the definitions' labels and `cleanup` resolve to the code emitted
   for them, the ISA run from a related state ends with exactly the observation of the linear machine -
   print trace and result, or the undefined operation - whenever the machine's run ends at all (a
   linearly well-typed statement of the fragment never gets stuck: progress is part of the proof) *)
Theorem C06_sim_exec :
  forall (im : image) (p : prog) (sp : Z) (CL : Z -> ident -> list clause -> Prop),
    (forall d, In d (pdefs p) ->
       exists pcd lcd cd lcd', find_label (labels im) (show_ident (dname d) +++ "_") = Some pcd /\
         PM.find pcd (code im) = Some (LAB (show_ident (dname d) +++ "_")) /\
         code_statement x86_backend (ptypes p) (dbody d) (dctx d) lcd = Ok (cd, lcd') /\
         code_at im (Pos.succ pcd) cd /\ labels_at_nh im (Pos.succ pcd) cd) ->
    (exists pcc, find_label (labels im) "cleanup" = Some pcc /\ code_at im pcc cleanup) ->
    (forall d, In d (pdefs p) -> lin_check (sigs_of p) (dctx d) (dbody d) = true) ->
    (forall d, In d (pdefs p) -> def_int d = true) ->
    forall (fuel : nat) (s : stmt) (c : ctx) (e : env) (ot : prints) (st : xstate) (pc : positive)
           (code : list xcode) (lc lc' : N),
      stmt_int s = true -> ctx_int c = true -> lin_check (sigs_of p) c s = true ->
      code_statement x86_backend (ptypes p) s c lc = Ok (code, lc') ->
      code_at im pc code -> labels_at_nh im pc code ->
      rel CL c e st sp -> outer_ok st sp -> out st = ot ->
      snd (exec_linear fuel p e s ot) <> OOutOfFuel -> finishes im pc st (exec_linear fuel p e s ot).
Proof. exact sim_exec. Qed.
Print Assumptions C06_sim_exec.

(* layout: in the image of an instruction list that passes the assembler-level check `asm_wf` (C14,
   evaluated on the REAL output on every run), instruction j sits at index 1+j and every label not
   starting with '#' resolves to its own position *)
Theorem C06_image_layout :
  forall cs : list xcode,
    asm_wf cs = None -> code_at (mk_image cs) 1%positive cs /\ labels_at_nh (mk_image cs) 1%positive cs.
Proof. exact mk_image_layout. Qed.
Print Assumptions C06_image_layout.

(* PROGRAM LEVEL, integer fragment (`int_frag`: integer contexts, bodies of Substitute / Call / Literal / Op /
   PrintI64 / IfC / Exit).  `plain_names`: no definition name starts with '#' (true of every name the parser
   or the pipeline produces).  Every run of the linear machine that ENDS is reproduced: same prints, same
   result or undefined-operation reason.  Against C06_codegen_simulates: no heap statements, asm_wf of the
   emitted code instead of guards; in exchange no ann_check_prog, no heap_fits. *)
Theorem C06_codegen_simulates_int :
  forall (p : prog) (lc : N) (cs : list xcode) (n : nat) (lc' : N) (args : list Z) (fuel : nat) (o : obs),
    int_frag p = true -> plain_names p = true -> lin_check_prog p = true ->
    x86_compile p lc = Ok (cs, n, lc') -> asm_wf cs = None ->
    List.length args = n ->
    run_linear fuel p args = o -> snd o <> OOutOfFuel ->
    exists outer inner, fst (run_x86 outer inner cs args) = o.
Proof. exact x86_codegen_simulates_int_total. Qed.
Print Assumptions C06_codegen_simulates_int.

(* the arity hypothesis is needed: with a wrong number of arguments the linear machine refuses to start
   (OStuck "entry-args"), which no ISA run reports (witness: six arguments for a one-parameter entry) *)
Theorem C06_codegen_simulates_int_arity_refuted :
  ~ (forall (p : prog) (lc : N) (cs : list xcode) (n : nat) (lc' : N) (args : list Z) (fuel : nat) (o : obs),
      int_frag p = true -> plain_names p = true -> lin_check_prog p = true ->
      x86_compile p lc = Ok (cs, n, lc') -> asm_wf cs = None ->
      run_linear fuel p args = o -> snd o <> OOutOfFuel ->
      exists outer inner, fst (run_x86 outer inner cs args) = o).
Proof. exact ex_arity_needed. Qed.
Print Assumptions C06_codegen_simulates_int_arity_refuted.

(* the `defined o` form (such a run has the right argument count by itself): C06_codegen_correct_statement on
   the integer fragment with plain_names, lin_check_prog, asm_wf added - hence `_partial` *)
Theorem C06_codegen_correct_partial :
  forall (p : prog) (lc : N) (cs : list xcode) (n : nat) (lc' : N) (args : list Z) (fuel : nat) (o : obs),
    int_frag p = true -> plain_names p = true -> lin_check_prog p = true -> asm_wf cs = None ->
    x86_compile p lc = Ok (cs, n, lc') ->
    run_linear fuel p args = o -> defined o = true ->
    exists outer inner, fst (run_x86 outer inner cs args) = o.
Proof. exact x86_codegen_correct_int. Qed.
Print Assumptions C06_codegen_correct_partial.

(* the hypotheses are satisfiable by a non-trivial program (two definitions calling each other, literals,
   Sum Sub Prod Div Rem, both forms of IfC, a three-way explicit substitution with a duplicated source,
   prints), and the conclusion is what evaluation shows: Proof/X86SimExample.v *)
Theorem C06_codegen_simulates_int_example_hypotheses :
  int_frag ex_prog = true /\ plain_names ex_prog = true /\ lin_check_prog ex_prog = true /\
  (exists n lc', x86_compile ex_prog 0 = Ok (ex_code, n, lc')) /\ asm_wf ex_code = None.
Proof. exact ex_hypotheses. Qed.
Print Assumptions C06_codegen_simulates_int_example_hypotheses.
Theorem C06_codegen_simulates_int_example_runs :
  run_linear 50 ex_prog [0] = ([(true, 10); (false, -70)], OExit 10) /\
  fst (run_x86 10 1000 ex_code [0]) = ([(true, 10); (false, -70)], OExit 10) /\
  run_linear 50 ex_prog [12] = ([(true, 22); (false, 1)], OExit 11) /\
  fst (run_x86 10 1000 ex_code [12]) = ([(true, 22); (false, 1)], OExit 11) /\
  run_linear 50 ex_prog [10] = ([(true, 20)], OUndef "div0"%string) /\
  fst (run_x86 10 1000 ex_code [10]) = ([(true, 20)], OUndef "div0"%string).
Proof. exact ex_runs. Qed.
Print Assumptions C06_codegen_simulates_int_example_runs.


(* ======================================================================================== *)
(* Closures without captured variables: create / invoke (the closure fragment)               *)
(* ======================================================================================== *)
From SCC Require Import Proof.X86SimAddr Proof.X86SimClo Proof.X86SimProgC Proof.X86SimTopC Proof.X86SimExampleC.
Open Scope list_scope.

(* byte addresses in the image of ANY instruction list: every placed instruction has an address >= CODE_BASE,
   consecutive instructions have consecutive addresses (5 bytes for `jmp near`, 16 otherwise, 0 for labels),
   and the address after an instruction of non-zero size maps back (index_at: what an indirect jump uses) to
   exactly the next instruction *)
Theorem C06_image_addresses : forall cs : list xcode, img_ok (mk_image cs).
Proof. exact mk_image_ok. Qed.
Print Assumptions C06_image_addresses.

(* `clo_ok im p a T clauses` - what the second temporary of a closure variable points to (the CL of the
   relation from here on): the clauses are T's destructors in declaration order; an indirect jump to a (one
   clause) or to a + 5k (clause k through the jump table) arrives, with the state unchanged, at the code
   generated for the body of clause k, which is linearly well-typed in the clause context and in the fragment.
   The code a Create statement emits after its continuation (label, table of `jmp near`, clause bodies)
   establishes it for the address of its label: *)
Theorem C06_closure_layout :
  forall (im : image) (p : prog), img_ok im ->
    (forall pc a, PM.find pc (addr_of im) = Some a -> a < 4611686018427387904) ->
  forall (pc : positive) (P : list xcode) (fresh : string) (tn : ident) (cls : list clause) (c5 : list xcode) (lc3 lc5 : N),
    code_at im pc (P ++ ([LAB fresh] ++ table_or_nil cls fresh) ++ c5) ->
    labels_at_nh im pc (P ++ ([LAB fresh] ++ table_or_nil cls fresh) ++ c5) ->
    ends_nz P -> is_hash_label fresh = false ->
    clauses_code (ptypes p) [] fresh cls lc3 = Ok (c5, lc5) ->
    cls <> [] -> cls_ok (sigs_of p) (Decl tn) cls = true ->
    (forall c, In c cls -> lin_check (sigs_of p) (cl_ctx c) (cl_body c) = true /\ stmt_cf (cl_body c) = true /\ ctx_cf (cl_ctx c) = true) ->
    exists a, label_addr im fresh = Some a /\ clo_ok im p a tn cls.
Proof. exact create_layout. Qed.
Print Assumptions C06_closure_layout.

(* Create of a closure without captured variables, ANY context: null block pointer into the first temporary
   of the new position, the address of the closure's label into the second; the machine's new environment
   entry VClo is represented; control continues with the code of the continuation statement *)
Theorem C06_sim_create :
  forall (im : image) (p : prog), img_ok im ->
    (forall pc a, PM.find pc (addr_of im) = Some a -> a < 4611686018427387904) ->
  forall (c : ctx) (e : env) (s : xstate) (sp : Z) (v tn : ident) (cls : list clause) (next : stmt) (lc : N)
         (code : list xcode) (lc' : N) (pc : positive),
    rel (clo_ok im p) c e s sp -> NoDup (ids (c ++ [mkb v Cns (Decl tn)])) ->
    code_statement x86_backend (ptypes p) (Create v (Decl tn) (Some []) cls next) c lc = Ok (code, lc') ->
    code_at im pc code -> labels_at_nh im pc code ->
    is_hash_label (type_label (Decl tn) (lc + 1)%N) = false ->
    cls <> [] -> stmt_cf next = true -> cls_ok (sigs_of p) (Decl tn) cls = true ->
    (forall cl, In cl cls -> lin_check (sigs_of p) (cl_ctx cl) (cl_body cl) = true /\ stmt_cf (cl_body cl) = true /\ ctx_cf (cl_ctx cl) = true) ->
    exists c12 c3 lc3 rest s',
      code = c12 ++ c3 ++ rest /\
      code_statement x86_backend (ptypes p) next (c ++ [mkb v Cns (Decl tn)]) (lc + 1)%N = Ok (c3, lc3) /\
      exec_straight im c12 s = Some s' /\
      rel (clo_ok im p) (c ++ [mkb v Cns (Decl tn)]) (e ++ [(v, VClo tn cls [])]) s' sp /\ frame_eq s s' sp.
Proof. exact sim_create. Qed.
Print Assumptions C06_sim_create.

(* Invoke, ANY context: whether the type has one destructor (`jmp` through the temporary) or several
   (`add temporary, 5k; jmp`, the immediate encodable because the image passes asm_wf), with the closure in a
   register or in a spill slot, control arrives at the body of the clause the machine selects, in a state
   related to the machine's new environment (the arguments relabelled by the clause context) *)
Theorem C06_sim_invoke :
  forall (im : image) (p : prog),
    (forall pc c, PM.find pc (code im) = Some c -> instr_wf c = true) ->
  forall (c : ctx) (e : env) (s : xstate) (sp : Z) (v tag : ident) (t : ty) (args : ctx) (code : list xcode) (lc lc' : N)
         (pc : positive) (e0 : env) (x tn : ident) (cls : list clause) (ce : env) (cl : clause) (e1 : env),
    rel (clo_ok im p) c e s sp ->
    AxSem.split_last 1 e = Some (e0, [(x, VClo tn cls ce)]) -> N.eqb (idn x) (idn v) = true ->
    find_clause cls tag = Some cl -> bind (vars (cl_ctx cl)) (map snd e0) = Some e1 ->
    lin_check (sigs_of p) c (Invoke v tag t args) = true ->
    code_statement x86_backend (ptypes p) (Invoke v tag t args) c lc = Ok (code, lc') -> code_at im pc code ->
    exists pcb lcb cb lcb' s',
      exec_to im pc s pcb s' /\
      code_statement x86_backend (ptypes p) (cl_body cl) (cl_ctx cl) lcb = Ok (cb, lcb') /\ code_at im pcb cb /\ labels_at_nh im pcb cb /\
      lin_check (sigs_of p) (cl_ctx cl) (cl_body cl) = true /\ stmt_cf (cl_body cl) = true /\ ctx_cf (cl_ctx cl) = true /\
      rel (clo_ok im p) (cl_ctx cl) (e1 ++ ce) s' sp /\ frame_eq s s' sp.
Proof. exact sim_invoke. Qed.
Print Assumptions C06_sim_invoke.

(* composition for the closure fragment (stmt_cf: the integer statements plus Create with an empty
   environment and at least one clause, and Invoke; variables `ext i64` or `cns T`) *)
Theorem C06_sim_exec_cf :
  forall (im : image) (p : prog) (sp : Z),
    img_ok im ->
    (forall pc a, PM.find pc (addr_of im) = Some a -> a < 4611686018427387904) ->
    (forall pc c, PM.find pc (code im) = Some c -> instr_wf c = true) ->
    (forall d, In d (ptypes p) -> is_hash_label (label_of_type_name (show_ident (tname d))) = false) ->
    (forall d, In d (pdefs p) ->
       exists pcd lcd cd lcd', find_label (labels im) (show_ident (dname d) +++ "_") = Some pcd /\
         PM.find pcd (code im) = Some (LAB (show_ident (dname d) +++ "_")) /\
         code_statement x86_backend (ptypes p) (dbody d) (dctx d) lcd = Ok (cd, lcd') /\
         code_at im (Pos.succ pcd) cd /\ labels_at_nh im (Pos.succ pcd) cd) ->
    (exists pcc, find_label (labels im) "cleanup" = Some pcc /\ code_at im pcc cleanup) ->
    (forall d, In d (pdefs p) -> lin_check (sigs_of p) (dctx d) (dbody d) = true) ->
    (forall d, In d (pdefs p) -> stmt_cf (dbody d) = true) ->
    forall (fuel : nat) (s : stmt) (c : ctx) (e : env) (ot : prints) (st : xstate) (pc : positive)
           (code : list xcode) (lc lc' : N),
      stmt_cf s = true -> lin_check (sigs_of p) c s = true ->
      code_statement x86_backend (ptypes p) s c lc = Ok (code, lc') ->
      code_at im pc code -> labels_at_nh im pc code ->
      rel (clo_ok im p) c e st sp -> outer_ok st sp -> out st = ot ->
      snd (exec_linear fuel p e s ot) <> OOutOfFuel -> finishes im pc st (exec_linear fuel p e s ot).
Proof. exact sim_exec_cf. Qed.
Print Assumptions C06_sim_exec_cf.

(* PROGRAM LEVEL, closure fragment (`cf_frag`: the integer statements plus Create with an empty environment
   and Invoke) - the shape of the pipeline's output for first-order tail-recursive integer programs, where
   every call passes the return continuation.  `code_small`: the code is smaller than 2^62 - 2^30 bytes
   (code addresses are added to table offsets in 64-bit arithmetic). *)
Theorem C06_codegen_simulates_cf :
  forall (p : prog) (lc : N) (cs : list xcode) (n : nat) (lc' : N) (args : list Z) (fuel : nat) (o : obs),
    cf_frag p = true -> entry_int p = true -> plain_names p = true -> plain_types p = true -> lin_check_prog p = true ->
    x86_compile p lc = Ok (cs, n, lc') -> asm_wf cs = None -> code_small cs = true ->
    List.length args = n ->
    run_linear fuel p args = o -> snd o <> OOutOfFuel ->
    exists outer inner, fst (run_x86 outer inner cs args) = o.
Proof. exact x86_codegen_simulates_cf. Qed.
Print Assumptions C06_codegen_simulates_cf.

(* non-vacuity: a program of the pipeline's shape (main creates the return continuation and calls the
   tail-recursive f, which finally invokes it) with a second closure of a two-destructor type entered through
   its jump table; closures are passed along, dropped (erase of a null pointer) and kept by substitutions *)
Theorem C06_codegen_simulates_cf_example_hypotheses :
  cf_frag exc_prog = true /\ entry_int exc_prog = true /\ plain_names exc_prog = true /\ plain_types exc_prog = true /\
  lin_check_prog exc_prog = true /\
  (exists n lc', x86_compile exc_prog 0 = Ok (exc_code, n, lc')) /\ asm_wf exc_code = None /\ code_small exc_code = true.
Proof. exact exc_hypotheses. Qed.
Print Assumptions C06_codegen_simulates_cf_example_hypotheses.
Theorem C06_codegen_simulates_cf_example_runs :
  run_linear 60 exc_prog [4] = ([(false, 4); (false, 7); (false, 9); (false, 10); (true, 10)], OExit 10) /\
  fst (run_x86 10 2000 exc_code [4]) = ([(false, 4); (false, 7); (false, 9); (false, 10); (true, 10)], OExit 10) /\
  run_linear 60 exc_prog [-3] = ([], OExit (-21)) /\
  fst (run_x86 10 2000 exc_code [-3]) = ([], OExit (-21)).
Proof. exact exc_runs. Qed.
Print Assumptions C06_codegen_simulates_cf_example_runs.


(* ======================================================================================== *)
(* HEAP statements: Let / Switch / Create with captured variables / Invoke / Substitute on    *)
(* objects - and the program-level theorem for ALL statement forms                           *)
(* ======================================================================================== *)
From SCC Require Import Model.Linearize Proof.X86Mem Sem.AxHeap Proof.X86HeapDefs Proof.X86HBridge Proof.X86HFrame Proof.X86HSimRel Proof.X86HSimStmt
     Proof.X86HSimStore Proof.X86HSimLoad Proof.X86HSimSubst Proof.X86HLayout Proof.X86HSimHeapA Proof.X86HAnn Proof.X86HAnnLin
     Proof.X86HSimHeapB Proof.X86HSimHeapC Proof.X86HSimProgA Proof.X86HSimProg Proof.X86HSimTop Proof.X86HSimCor Proof.X86HSimExample
     Proof.AxHeapExample.
From SCC Require Model.Heap Proof.HeapRep Proof.AxHeapTyping Proof.AxHeapSafe Proof.X86MemStoreChain Proof.X86HeapAcq Proof.X86State.
Open Scope Z_scope.
Open Scope list_scope.
(* THE STATE RELATION  `hrel types CLO c he hs s sp`  (Proof/X86HSimRel.v) between a configuration of the
   HEAP-INSTRUMENTED linear machine (Sem/AxHeap.v: environment he of (name, value, block pointer) by position, abstract
   allocator state hs of Model/Heap.v) and an ISA state s.  It extends `rel` above:
     frame / alignment / room as in `rel`;
     register HEAP = Heap.heap hs (allocation frontier block), register FREE = Heap.free hs (head of the free list);
     `heq (abs_heap (Heap.frontier hs) s) hs`: the abstraction of the ISA heap (C09) and the allocator state agree on
        frontier, heap, free, and on every block's header and next pointer, and on the slots UP TO ZERO PADDING
        (a zeroed block is [] in the model and [0;0;0] in memory);
     names of he and c agree, pairwise distinct; position i is represented (`hvrep`):
       integer z (ext i64): second temporary = z;
       object / closure v with block pointer q (the one the instrumented machine carries): first temporary = q,
         second temporary = a with  `xrep types CLO (hword s) v q a`, a relation over the heap WORDS of s:
           object  VObj tn tag fs : a = jump_length (position of tag in tn) (`tag_word`, with the field kinds);
           closure VClo tn cls ce : `CLO a tn cls (ctx_of_env ce)` - for the program-level theorem CLO is
             `hclo_ok im p`: a is the address of the code of the clauses (jump table or the single clause), each
             clause's field-load code and body placed there, compiled in context  cl_ctx ++ captured context;
           fields (`xflds`): none and q = 0; or q is a chain of nlinks(#fields) blocks (`wblocks`, all `is_blk`) whose
             slot addresses (`waddrs`, three per block, in field order) hold zero padding first and then, per field,
             pointer word and data word at +8 related by `xrep` again.
   `hframe_eq s s' sp`: output unchanged and every stack word outside the spill area unchanged (the heap changes).
   First consequence: operand lookup of integers. *)
Theorem C06_heap_rel_reads :
  forall (types : list tydecl) (CLO : Z -> ident -> list clause -> ctx -> Prop) (c : ctx) (he : henv) (hs : Heap.st)
         (s : xstate) (sp : Z) (a : ident) (x : Z),
    hrel types CLO c he hs s sp ->
    lookup_int (erase_env he) a = Some x ->
    exists (i : nat) (b : binding) (t : xtemp),
      nth_error c i = Some b /\ idn (bvar b) = idn a /\ SubstGraph.tpos x86_backend Snd i = Ok t /\ X86State.lget s sp t = Some x.
Proof. exact hrel_lookup. Qed.
Print Assumptions C06_heap_rel_reads.

(* BRIDGE from the invariant of the abstract allocator (C09/C10: InvA with the roots of the environment) to the
   hypotheses of the x86-64 refinement theorems of C09.
   Allocation of an object with the given field pointers: the precondition `alloc_object_pre` of the store refinement
   holds on the ABSTRACTED ISA heap; the blocks acquired there are the ones the model acquires, pairwise distinct,
   inside the heap region and not reachable from the roots.  Numeric hypotheses: fewer than 2^20 roots (true: at most
   134 positions), and the frontier after the allocation leaves room for one block (`heap_fits` below). *)
Theorem C06_heap_bridge_alloc :
  forall (fields : list Z) (a s : Heap.st) (R R0 hl fl cl : list Z),
    InvA HEAP_BASE s R hl fl cl -> heq a s -> P3 s ->
    Permutation.Permutation R (Heap.nz fields ++ R0) ->
    fields <> nil ->
    Z.of_nat (List.length R) < 1048576 ->
    Heap.frontier (snd (Heap.alloc_object fields s)) + 64 <= LIMIT ->
    X86MemStoreChain.alloc_object_pre fields a /\
    X86HeapAcq.alloc_object_acq fields a = X86HeapAcq.alloc_object_acq fields s /\
    NoDup (X86HeapAcq.alloc_object_acq fields s) /\
    (forall b : Z, In b (X86HeapAcq.alloc_object_acq fields s) -> is_blk b /\ ~ reach (Heap.m s) R b).
Proof. exact alloc_object_bridge. Qed.
Print Assumptions C06_heap_bridge_alloc.
(* reference counts are 32-bit (header bound of the share / erase refinements): at most one reference per slot of
   a block of the region plus one per root *)
Theorem C06_heap_bridge_header_bounds :
  forall (s : Heap.st) (R hl fl cl : list Z),
    InvA HEAP_BASE s R hl fl cl -> P3 s -> Heap.frontier s <= LIMIT -> Z.of_nat (List.length R) <= 1048576 ->
    forall x : Z, is_blk x -> 0 <= Heap.hdr (Heap.m s x) <= HB.
Proof. exact hdr_bounds_x. Qed.
Print Assumptions C06_heap_bridge_header_bounds.
(* operands are blocks: everything reachable from the roots is a block of the heap region *)
Theorem C06_heap_bridge_operands_are_blocks :
  forall (s : Heap.st) (R hl fl cl : list Z) (b : Z),
    InvA HEAP_BASE s R hl fl cl -> Heap.frontier s <= LIMIT -> reach (Heap.m s) R b -> is_blk b.
Proof. exact reach_is_blk. Qed.
Print Assumptions C06_heap_bridge_operands_are_blocks.
(* the pointers the instrumented machine reads out of an object (`load_ptrs`, from the model's slots) are the
   pointer words of the ISA heap at the slot addresses of the chain *)
Theorem C06_heap_bridge_loaded_pointers :
  forall (F : Z) (s : xstate) (hs : Heap.st) (lk : HeapRep.lkmap) (fs : list value) (q : Z),
    heq (abs_heap F s) hs -> P03 hs -> fs <> nil ->
    HeapRep.rep_flds lk (Heap.m hs) fs q ->
    Forall is_blk (wblocks (Heap.nlinks (List.length fs)) (hword s) q) ->
    load_ptrs hs (List.length fs) q =
    map (hword s) (skipn (List.length (waddrs (Heap.nlinks (List.length fs)) (hword s) q) - List.length fs)
                         (waddrs (Heap.nlinks (List.length fs)) (hword s) q)).
Proof. exact load_ptrs_words. Qed.
Print Assumptions C06_heap_bridge_loaded_pointers.

(* STATEMENT LEVEL.  `Let v = tag(args); next`: the code stores the last |args| positions into a fresh chain of blocks
   (acquire from the free list or the frontier, deferred erase of the fields of a reused block, zero padding), loads
   the tag and falls into the code of `next` (placed behind: c3), in the state related to the machine's next
   configuration: the fields are consumed, v is bound to the object, the allocator state is alloc_object's. *)
Theorem C06_sim_let :
  forall (im : image) (p : prog) (c : ctx) (he : henv) (hs : Heap.st) (s : xstate) (sp : Z) (v : ident) (t : ty) (tag : ident)
         (args : ctx) (next : stmt) (lc : N) (code : list xcode) (lc' : N) (pc : positive) (he0 fs : list hentry) (tn : ident)
         (hl fl cl : list Z),
    hrel (ptypes p) (hclo_ok im p) c he hs s sp ->
    lin_check (sigs_of p) c (Let v t tag args next) = true ->
    code_statement x86_backend (ptypes p) (Let v t tag args next) c lc = Ok (code, lc') ->
    X86Exec.code_at im pc code ->
    X86SimRel.labels_at_nh im pc code ->
    ty_name t = Some tn ->
    AxSem.split_last (List.length args) he = Some (he0, fs) ->
    InvA HEAP_BASE hs (roots he) hl fl cl ->
    P03 hs ->
    (forall en : hentry, In en he -> chi_of (h_val en) = Ext -> h_ptr en = 0) ->
    let res0 := Heap.alloc_object (map store_ptr fs) hs in
    Heap.frontier (snd res0) + 64 <= LIMIT ->
    Heap.heap (snd res0) <> 0 ->
    Heap.free (snd res0) <> 0 ->
    let c0 := firstn (List.length c - List.length args) c in
    exists (c12 c3 : list xcode) (lc1 : N) (s' : xstate),
      code = c12 ++ c3 /\
      code_statement x86_backend (ptypes p) next (c0 ++ {| bvar := v; bchi := Prd; bty := t |} :: nil) lc1 = Ok (c3, lc') /\
      lin_check (sigs_of p) (c0 ++ {| bvar := v; bchi := Prd; bty := t |} :: nil) next = true /\
      X86Exec.exec_to im pc s (X86Exec.padd pc (List.length c12)) s' /\
      hrel (ptypes p) (hclo_ok im p) (c0 ++ {| bvar := v; bchi := Prd; bty := t |} :: nil)
        (he0 ++ (v, VObj tn tag (map h_val fs), fst res0) :: nil) (snd res0) s' sp /\ hframe_eq s s' sp.
Proof. exact hsim_let. Qed.
Print Assumptions C06_sim_let.

(* `Switch v {clauses}`: the code dispatches on the tag (second temporary; jump table of `jump_length` entries, or
   fall-through for a single clause), the clause's code loads the fields (share of each field pointer, release of the
   block or decrement, chain walk) and reaches the code of the clause body - placed in the image, compiled in the
   context the machine continues in - in a related state.  `back_ok im`: a jump to an address enters at the FIRST
   instruction placed there (labels have size zero); addresses below 2^62. *)
Theorem C06_sim_switch :
  forall (im : image) (p : prog),
    X86SimAddr.img_ok im -> back_ok im ->
    (forall (pc : PM.key) (a : Z), PM.find pc (addr_of im) = Some a -> a < 4611686018427387904) ->
    forall (c : ctx) (he : henv) (hs : Heap.st) (s : xstate) (sp : Z) (v : ident) (t : ty) (cls : list (ident * ctx * stmt))
           (lc : N) (code : list xcode) (lc' : N) (pc : positive) (he0 : list hentry) (x tn tag : ident) (fs : list value)
           (q : Z) (cl : clause) (e1 : env) (lk : HeapRep.lkmap) (hl fl cl0 : list Z),
    hrel (ptypes p) (hclo_ok im p) c he hs s sp ->
    lin_check (sigs_of p) c (Switch v t cls) = true ->
    code_statement x86_backend (ptypes p) (Switch v t cls) c lc = Ok (code, lc') ->
    X86Exec.code_at im pc code ->
    X86SimRel.labels_at_nh im pc code ->
    (forall lcx : N, is_hash_label (type_label t lcx) = false) ->
    AxSem.split_last 1 he = Some (he0, (x, VObj tn tag fs, q) :: nil) ->
    find_clause cls tag = Some cl ->
    bind (vars (cl_ctx cl)) fs = Some e1 ->
    InvA HEAP_BASE hs (roots he) hl fl cl0 ->
    P03 hs ->
    Heap.frontier hs <= LIMIT ->
    (fs <> nil -> HeapRep.rep_flds lk (Heap.m hs) fs q) ->
    let c0 := removelast c in
    exists (pcb : positive) (lcb : N) (cb : list xcode) (lcb' : N) (s' : xstate),
      X86Exec.exec_to im pc s pcb s' /\
      code_statement x86_backend (ptypes p) (cl_body cl) (c0 ++ cl_ctx cl) lcb = Ok (cb, lcb') /\
      X86Exec.code_at im pcb cb /\
      X86SimRel.labels_at_nh im pcb cb /\
      lin_check (sigs_of p) (c0 ++ cl_ctx cl) (cl_body cl) = true /\
      hrel (ptypes p) (hclo_ok im p) (c0 ++ cl_ctx cl) (he0 ++ attach e1 (load_ptrs hs (List.length (cl_ctx cl)) q))
        (hrun (load_ops (List.length (cl_ctx cl)) q) hs) s' sp /\ hframe_eq s s' sp.
Proof. exact hsim_switch. Qed.
Print Assumptions C06_sim_switch.

(* `Create v {clauses} capturing env0; next`: the captured positions are stored like the fields of a Let, the second
   temporary gets the address of the clauses' code (lea of a label placed behind `next`), and the closure is
   represented with CLO = hclo_ok: every clause's code is in the image.  Two structural hypotheses on the
   annotation: it IS the end of the context, names included (`skipn ... = env0`; the generator orders the field
   stores by position, the reference-count operations of a later substitution by name), and `ann_clauses_cr`
   (the same for the statements inside the clauses). *)
Theorem C06_sim_create_captured :
  forall (im : image) (p : prog),
    X86SimAddr.img_ok im -> back_ok im ->
    (forall (pc : PM.key) (a : Z), PM.find pc (addr_of im) = Some a -> a < 4611686018427387904) ->
    forall (c : ctx) (he : henv) (hs : Heap.st) (s : xstate) (sp : Z) (v : ident) (t : ty) (env0 : ctx) (cls : list (ident * ctx * stmt))
           (next : stmt) (lc : N) (code : list xcode) (lc' : N) (pc : positive) (he0 cap : list hentry) (tn : ident) (ce : env)
           (hl fl cl : list Z),
    hrel (ptypes p) (hclo_ok im p) c he hs s sp ->
    lin_check (sigs_of p) c (Create v t (Some env0) cls next) = true ->
    skipn (List.length c - List.length env0) c = env0 ->
    ann_clauses_cr env0 cls = true ->
    code_statement x86_backend (ptypes p) (Create v t (Some env0) cls next) c lc = Ok (code, lc') ->
    X86Exec.code_at im pc code ->
    X86SimRel.labels_at_nh im pc code ->
    (forall lcx : N, is_hash_label (type_label t lcx) = false) ->
    ty_name t = Some tn ->
    AxSem.split_last (List.length env0) he = Some (he0, cap) ->
    bind (vars env0) (map h_val cap) = Some ce ->
    InvA HEAP_BASE hs (roots he) hl fl cl ->
    P03 hs ->
    (forall en : hentry, In en he -> chi_of (h_val en) = Ext -> h_ptr en = 0) ->
    let res0 := Heap.alloc_object (map store_ptr cap) hs in
    Heap.frontier (snd res0) + 64 <= LIMIT ->
    Heap.heap (snd res0) <> 0 ->
    Heap.free (snd res0) <> 0 ->
    let c0 := firstn (List.length c - List.length env0) c in
    exists (c12 c3 : list xcode) (lc2 lc3 : N) (rest' : list xcode) (s' : xstate),
      code = c12 ++ c3 ++ rest' /\
      code_statement x86_backend (ptypes p) next (c0 ++ {| bvar := v; bchi := Cns; bty := t |} :: nil) lc2 = Ok (c3, lc3) /\
      lin_check (sigs_of p) (c0 ++ {| bvar := v; bchi := Cns; bty := t |} :: nil) next = true /\
      X86Exec.exec_to im pc s (X86Exec.padd pc (List.length c12)) s' /\
      hrel (ptypes p) (hclo_ok im p) (c0 ++ {| bvar := v; bchi := Cns; bty := t |} :: nil) (he0 ++ (v, VClo tn cls ce, fst res0) :: nil)
        (snd res0) s' sp /\ hframe_eq s s' sp.
Proof. exact hsim_create. Qed.
Print Assumptions C06_sim_create_captured.

(* `Invoke v tag`: indirect jump through the second temporary (plus the table offset of tag), the clause's code
   loads the captured variables from the block in the first temporary behind the arguments, and reaches the clause
   body's code (all from `hclo_ok`), in a related state *)
Theorem C06_sim_invoke_captured :
  forall (im : image) (p : prog) (c : ctx) (he : henv) (hs : Heap.st) (s : xstate) (sp : Z) (v tag : ident) (t : ty)
         (args : ctx) (cd : list xcode) (lc lc' : N) (pc : positive) (he0 : list hentry) (x tn : ident) (cls : list clause)
         (ce : list (ident * value)) (q : Z) (cl : clause) (e1 : env) (lk : HeapRep.lkmap) (hl fl cl0 : list Z),
    hrel (ptypes p) (hclo_ok im p) c he hs s sp ->
    (forall (pc0 : PM.key) (c0 : xcode), PM.find pc0 (code im) = Some c0 -> instr_wf c0 = true) ->
    AxSem.split_last 1 he = Some (he0, (x, VClo tn cls ce, q) :: nil) ->
    find_clause cls tag = Some cl ->
    bind (vars (cl_ctx cl)) (map snd (erase_env he0)) = Some e1 ->
    lin_check (sigs_of p) c (Invoke v tag t args) = true ->
    code_statement x86_backend (ptypes p) (Invoke v tag t args) c lc = Ok (cd, lc') ->
    X86Exec.code_at im pc cd ->
    InvA HEAP_BASE hs (roots he) hl fl cl0 ->
    P03 hs ->
    Heap.frontier hs <= LIMIT ->
    (ce <> nil -> HeapRep.rep_flds lk (Heap.m hs) (map snd ce) q) ->
    exists (pcb : positive) (lcb : N) (cb : list xcode) (lcb' : N) (s' : xstate),
      X86Exec.exec_to im pc s pcb s' /\
      code_statement x86_backend (ptypes p) (cl_body cl) (cl_ctx cl ++ ctx_of_env ce) lcb = Ok (cb, lcb') /\
      X86Exec.code_at im pcb cb /\
      X86SimRel.labels_at_nh im pcb cb /\
      lin_check (sigs_of p) (cl_ctx cl ++ ctx_of_env ce) (cl_body cl) = true /\
      ann_check (cl_ctx cl ++ ctx_of_env ce) (cl_body cl) = true /\
      hrel (ptypes p) (hclo_ok im p) (cl_ctx cl ++ ctx_of_env ce) (attach e1 (ptrs he0) ++ attach ce (load_ptrs hs (List.length ce) q))
        (hrun (load_ops (List.length ce) q) hs) s' sp /\ hframe_eq s s' sp.
Proof. exact hsim_invoke. Qed.
Print Assumptions C06_sim_invoke_captured.

(* `Substitute` with objects and closures among the variables: the weakening / contraction code (erase of every
   dropped pointer, share of every duplicated one - the instrumented machine's `subst_ops`, in the generator's
   order) followed by the parallel moves of both temporaries *)
Theorem C06_sim_substitute_objects :
  forall (im : image) (types : list tydecl) (CLO : Z -> ident -> list clause -> ctx -> Prop) (c : ctx) (he : henv) (hs : Heap.st)
         (s : xstate) (sp : Z) (re : list (binding * ident)) (he' : henv) (c1 : list xcode) (lc lc1 : N) (c2 : list xcode)
         (pc : positive) (hl fl cl : list Z),
    hrel types CLO c he hs s sp ->
    NoDup (SubstGraph.new_ids re) ->
    (forall q : binding * ident, In q re -> has c (snd q) (bchi (fst q)) (bty (fst q)) = true) ->
    hsubst he re = Some he' ->
    ctx_of he = c ->
    InvA HEAP_BASE hs (roots he) hl fl cl ->
    P03 hs ->
    Heap.frontier hs <= LIMIT ->
    code_weakening_contraction x86_backend (transpose re c) c lc = Ok (c1, lc1) ->
    code_exchange x86_backend (transpose re c) c (map fst re) = Ok c2 ->
    X86Exec.code_at im pc (c1 ++ c2) ->
    X86SimRel.labels_at_nh im pc (c1 ++ c2) ->
    exists s' : xstate,
      X86Exec.exec_to im pc s (X86Exec.padd pc (List.length (c1 ++ c2))) s' /\
      hrel types CLO (map fst re) he' (hrun (subst_ops he re) hs) s' sp /\ hframe_eq s s' sp.
Proof. exact hsim_substitute. Qed.
Print Assumptions C06_sim_substitute_objects.

(* COMPOSITION by induction on the fuel of the instrumented machine's run function, all eleven statement forms,
   progress included; `hinv`: the allocator invariant with the environment as roots, typing of the configuration,
   blocks have zero or three slots, and the frontier bound along the rest of the run *)
Theorem C06_sim_exec_heap :
  forall (im : image) (p : prog) (sp : Z),
    X86SimAddr.img_ok im -> back_ok im ->
    (forall (pc : PM.key) (a : Z), PM.find pc (addr_of im) = Some a -> a < 4611686018427387904) ->
    (forall (pc : PM.key) (c : xcode), PM.find pc (code im) = Some c -> instr_wf c = true) ->
    (forall d : tydecl, In d (ptypes p) -> is_hash_label (label_of_type_name (show_ident (tname d))) = false) ->
    (forall d : def, In d (pdefs p) ->
      exists (pcd : positive) (lcd : N) (cd : list xcode) (lcd' : N),
        find_label (labels im) (show_ident (dname d) +++ "_") = Some pcd /\
        PM.find pcd (code im) = Some (LAB (show_ident (dname d) +++ "_")) /\
        code_statement x86_backend (ptypes p) (dbody d) (dctx d) lcd = Ok (cd, lcd') /\
        X86Exec.code_at im (Pos.succ pcd) cd /\ X86SimRel.labels_at_nh im (Pos.succ pcd) cd) ->
    (exists pcc : positive, find_label (labels im) "cleanup" = Some pcc /\ X86Exec.code_at im pcc cleanup) ->
    lin_check_prog p = true ->
    ann_check_prog p = true ->
    forall (fuel : nat) (s : stmt) (c : ctx) (he : henv) (hs : Heap.st) (ot : prints) (tr : list Heap.op) (st : xstate)
           (pc : positive) (code : list xcode) (lc lc' : N),
    lin_check (sigs_of p) c s = true ->
    ann_check c s = true ->
    code_statement x86_backend (ptypes p) s c lc = Ok (code, lc') ->
    X86Exec.code_at im pc code ->
    X86SimRel.labels_at_nh im pc code ->
    hrel (ptypes p) (hclo_ok im p) c he hs st sp ->
    map h_id he = vars c ->
    hinv p he hs s ->
    X86SimProg.outer_ok st sp ->
    out st = ot ->
    X86SimProg.not_oof (fst (fst (hexec fuel p {| hc_env := he; hc_heap := hs; hc_stmt := s |} ot tr))) ->
    X86SimRel.finishes im pc st (fst (fst (hexec fuel p {| hc_env := he; hc_heap := hs; hc_stmt := s |} ot tr))).
Proof. exact hsim_exec. Qed.
Print Assumptions C06_sim_exec_heap.

(* PROGRAM LEVEL, ALL STATEMENT FORMS: every run of the linear machine that ends (result, undefined operation or
   stuck) is reproduced by the ISA run of the emitted code, same prints, same end.
   `_partial`: asm_wf and code_small of the emitted code are hypotheses here; C06_codegen_simulates has guards on
   the program in their place.  Two further hypotheses, which C06_codegen_simulates keeps, are not checks of C14 on
   the output:
     ann_check_prog p    (boolean) every Create's annotation is literally the end of its context (and every clause of
                         a Switch / Create is checked in the context the generator uses).  The generator stores
                         captured variables by position but orders reference-count operations by name, so a Create
                         annotated with other names is outside what the proof covers.  NOT a restriction for the
                         compiler: every output of the linearization pass satisfies it (C06_linearize_ann), whence
                         C06_codegen_correct_linearized_partial without it.
     heap_fits p args    (not a boolean on p: a bound along the run) in every configuration the instrumented machine
                         reaches from the arguments, allocation frontier + 64 <= HEAP_BASE + HEAP_SIZE: the run fits
                         the 32 MiB heap region of the ISA model.  Necessary: the linear machine has no memory
                         bound, the ISA model faults outside the region (and the generated code does not check).
                         Decided along any terminating run by `fits_run` (C06_heap_fits_decided). *)
Theorem C06_codegen_simulates_partial :
  forall (p : prog) (lc : N) (cs : list xcode) (n : nat) (lc' : N) (args : list Z) (fuel : nat) (o : obs),
    lin_check_prog p = true -> ann_check_prog p = true -> AxHeapTyping.entry_ext p = true ->
    plain_names p = true -> plain_types p = true ->
    x86_compile p lc = Ok (cs, n, lc') -> asm_wf cs = None -> code_small cs = true ->
    List.length args = n -> heap_fits p args ->
    run_linear fuel p args = o -> snd o <> OOutOfFuel ->
    exists outer inner, fst (run_x86 outer inner cs args) = o.
Proof. exact x86_codegen_simulates. Qed.
Print Assumptions C06_codegen_simulates_partial.


Theorem C06_linearize_ann : forall p : prog, prog_ok p = true -> ann_check_prog (linearize p) = true.
Proof. exact linearize_ann. Qed.
Print Assumptions C06_linearize_ann.

(* for the compiler's own programs: lin_check_prog and ann_check_prog of the linearizer's output are theorems
   (C05_linearize_exact, C06_linearize_ann); defined runs *)
Theorem C06_codegen_correct_linearized_partial :
  forall (a : prog) (lc : N) (cs : list xcode) (n : nat) (lc' : N) (args : list Z) (fuel : nat) (o : obs),
    prog_ok a = true ->
    AxHeapTyping.entry_ext (linearize a) = true -> plain_names (linearize a) = true -> plain_types (linearize a) = true ->
    x86_compile (linearize a) lc = Ok (cs, n, lc') -> asm_wf cs = None -> code_small cs = true ->
    heap_fits (linearize a) args ->
    run_linear fuel (linearize a) args = o -> defined o = true ->
    exists outer inner, fst (run_x86 outer inner cs args) = o.
Proof. exact x86_codegen_correct_linearized. Qed.
Print Assumptions C06_codegen_correct_linearized_partial.

(* `heap_fits` is decided along any run that ends within the fuel *)
Theorem C06_heap_fits_decided :
  forall (fuel : nat) (p : prog) (args : list Z), fits_run fuel p args = true -> heap_fits p args.
Proof. exact fits_run_sound. Qed.
Print Assumptions C06_heap_fits_decided.

(* non-vacuity: the program of Proof/AxHeapExample.v, linearized - lists built by Let and taken apart by Switch, a
   five-field record (two chained blocks), an object shared and one dropped by substitutions, a closure that
   CAPTURES an integer and is invoked, two definitions calling each other: every hypothesis evaluated; the theorem
   applied; and both machines evaluated on the arguments [3; 100] *)
Theorem C06_codegen_simulates_heap_example_hypotheses :
  lin_check_prog hx_lin = true /\ ann_check_prog hx_lin = true /\ AxHeapTyping.entry_ext hx_lin = true /\
  plain_names hx_lin = true /\ plain_types hx_lin = true /\
  (exists lc', x86_compile hx_lin 0 = Ok (hxe_code, 2%nat, lc')) /\ asm_wf hxe_code = None /\ code_small hxe_code = true /\
  fits_run 2000 hx_lin [3; 100] = true.
Proof. exact hxe_hypotheses. Qed.
Print Assumptions C06_codegen_simulates_heap_example_hypotheses.
Theorem C06_codegen_simulates_heap_example_applied :
  exists outer inner, fst (run_x86 outer inner hxe_code [3; 100]) = run_linear 2000 hx_lin [3; 100].
Proof. exact hxe_simulated. Qed.
Print Assumptions C06_codegen_simulates_heap_example_applied.
Theorem C06_codegen_simulates_heap_example_runs :
  run_linear 2000 hx_lin [3; 100] = ([(true, 106)], OExit 106) /\
  fst (run_x86 20 2000 hxe_code [3; 100]) = ([(true, 106)], OExit 106).
Proof. exact hxe_runs. Qed.
Print Assumptions C06_codegen_simulates_heap_example_runs.

(* `heap_fits` is needed: the statement without a heap bound is false in the ISA model.  The allocation code emitted
   for one integer field, run from the state whose HEAP register holds the LAST block of the heap region (FREE the
   frontier, heap zeroed), faults with an out-of-bounds load: acquire_block inspects the header at HEAP_BASE +
   HEAP_SIZE, no comparison with the end of the region is emitted (Proof/X86HeapFull.v; known finding
   heap-exhaustion-unchecked of C09, exhibited on the REAL code by step heapfull-x86 and natively by
   corpus/c09/heap_exhaustion.sc) *)
From SCC Require Import Proof.X86HeapFull.
Theorem C06_allocation_without_heap_bound_refuted :
  ~ (forall h : Z, is_blk h -> hf_outcome h = hf_end).
Proof. exact alloc_in_region_refuted. Qed.
Print Assumptions C06_allocation_without_heap_bound_refuted.

(* ======================= the two checks on the output as theorems =======================
   `asm_wf cs = None` and `code_small cs = true`, hypotheses of C06_codegen_simulates_partial (and evaluated on
   the real output of every run), are PROVED for the model's output (Props/C14.v: C14_x86_compile_asm_wf,
   C14_x86_compile_code_small) under boolean guards on the program:
     labels_guard p   the label texts <Type>_<k>[_<Xtor>] are unambiguous (Sem/LabelGuard.v; outside it: known
                      finding label-collision-name-digits)
     imm_guard p      literals are 64-bit values; a Substitute lists at most 2^31 pairs; a type declares at most
                      2^28 xtors (Sem/WfGuard.v)
     size_guard p     cg_bound_defs (pdefs p) <= 2^40 (the size measure of C19)
   (calls_guard follows from lin_check_prog).  ann_check_prog and heap_fits stay (see
   C06_codegen_simulates_partial). *)
From SCC Require Import Sem.LabelGuard Sem.WfGuard Proof.X86WfAll Proof.X86WfCor.

Theorem C06_codegen_simulates :
  forall (p : prog) (lc : N) (cs : list xcode) (n : nat) (lc' : N) (args : list Z) (fuel : nat) (o : obs),
    lin_check_prog p = true -> ann_check_prog p = true -> AxHeapTyping.entry_ext p = true ->
    plain_names p = true -> plain_types p = true ->
    labels_guard p = true -> imm_guard p = true -> size_guard p = true ->
    x86_compile p lc = Ok (cs, n, lc') ->
    List.length args = n -> heap_fits p args ->
    run_linear fuel p args = o -> snd o <> OOutOfFuel ->
    exists outer inner, fst (run_x86 outer inner cs args) = o.
Proof. exact x86_codegen_simulates_wf. Qed.
Print Assumptions C06_codegen_simulates.

Theorem C06_codegen_correct_linearized :
  forall (a : prog) (lc : N) (cs : list xcode) (n : nat) (lc' : N) (args : list Z) (fuel : nat) (o : obs),
    prog_ok a = true ->
    AxHeapTyping.entry_ext (linearize a) = true -> plain_names (linearize a) = true -> plain_types (linearize a) = true ->
    labels_guard (linearize a) = true -> imm_guard (linearize a) = true -> size_guard (linearize a) = true ->
    x86_compile (linearize a) lc = Ok (cs, n, lc') ->
    heap_fits (linearize a) args ->
    run_linear fuel (linearize a) args = o -> defined o = true ->
    exists outer inner, fst (run_x86 outer inner cs args) = o.
Proof. exact x86_codegen_correct_linearized_wf. Qed.
Print Assumptions C06_codegen_correct_linearized.

(* non-vacuity: the heap example of C06_codegen_simulates_heap_example_hypotheses passes the three guards too *)
Theorem C06_codegen_simulates_example_guards :
  labels_guard hx_lin = true /\ imm_guard hx_lin = true /\ size_guard hx_lin = true /\ calls_guard hx_lin = true.
Proof. exact hx_lin_guards. Qed.
Print Assumptions C06_codegen_simulates_example_guards.
