(* C01: the compiled x86-64 executable behaves exactly like the source program.
   Only statements; proofs in Proof/Compose*.v and the stage developments.

   Every theorem is a COMPOSITION of stage theorems along
     Fun -compile_prog-> Core -focus_prog-> focused Core -shrink_prog-> AxCut -linearize-> linear AxCut -x86_compile-> x86-64
   with one conclusion: a source run that ends with `exit` ([out_ok], Proof/Compose.v; the Prop form of AxSem.defined)
   is reproduced, prints and exit value, by the emitted code on the ISA model (Sem/X86Sem.v), and the bytes the runtime
   writes are the decimal rendering of the source output.  Runs that end in undefined arithmetic, get stuck or run out
   of fuel are outside every theorem of this file.

   The links are the universal statements H_fun2core, H_focus, H_shrink, H_x86 below.  C01_compile_correct_partial
   assumes all four; the later theorems replace them by proved stage theorems under boolean guards on the programs
   the statement names:
     H_fun2core   C02_fun2core_correct_fragment2         guard prog_guard (Model/Fun2CoreGuard.v, spelled out in Props/C02.v)
     H_focus      C03_uniquify_focus_preserves_static    guards cs_prog, static_ok (Model/FocusGuard.v)
     H_shrink     C04_shrink_correct_fragment2           guards frag2_prog, decls_ok (Sem/FsFrag2.v), wt_fs, unique_binders,
                                                         ids_bounded (Sem/FsCheck.v)
     H_x86        C06_codegen_correct_linearized_partial all statement forms; guards at C01_compile_correct_all_links_partial
   until C01_compile_correct_all_links has no H_... hypothesis.  The universal statements themselves: H_focus is refuted
   (C03_focus_preserves_statement_refuted, an ill-typed Core program); H_fun2core (= C02's
   fun2core_correct_guarded_statement) is refuted only for compile_prog_before_fix
   (C02_fun2core_guarded_statement_refuted_before_fix), open for compile_prog; H_shrink and H_x86 are neither proved
   nor refuted (Props/C04.v says why H_shrink needs names_ok).
   The linearization link is C05_linearize_preserves in every composition; the runtime link (print trace -> bytes on
   stdout; exit status = result mod 256; arguments) the C20 theorems.
   Every hypothesis is exercised on every run: the real pipeline runs on corpus and random programs, the printed
   assembly is assembled by GNU as, linked with the repository's driver and io.c, executed natively, and stdout / exit
   status are compared with the source semantics (Sem/FunSem.v) - see the evidence. *)
From Coq Require Import List ZArith NArith String Bool.
From SCC Require Import Base.Sexp Lang.AxSyn Lang.FunSyn Lang.CoreSyn Sem.AxSem Sem.CoreSem Sem.FunSem Sem.X86Sem
     Model.Backend Model.Fun2Core Model.Focus Model.FocusCheck Model.Shrink Model.Linearize Model.LinCheck Model.X86 Model.Runtime
     Proof.Compose Proof.ComposeFocus Proof.FocusFrag Proof.UqAeq.
From SCC Require Import Model.FocusGuard.
From SCC Require Import Sem.FsCheck Sem.FsFrag2 Proof.Compose2.
From SCC Require Import Model.Fun2CoreGuard Proof.ComposeF2C.
Import ListNotations.
Open Scope Z_scope.

Definition H_fun2core : Prop :=
  forall (p : fcprog) (c : cprog) (args : list Z) (n : nat) (o : obs),
    annotated_fcprog p = true -> effect_sequenced p = true -> barendregt p = true ->
    compile_prog p = Fun2Core.Ok c -> run_fun n p args = o -> defined o = true ->
    exists m, run_core m c args = o.
Definition H_focus : Prop :=
  forall p q args fuel, pre_check p = true -> focus_wf p = true -> focus_prog p = Backend.Ok q ->
    let o := run_core fuel p args in
    ((exists z, snd o = OExit z) \/ (exists w, snd o = OUndef w)) ->
    exists fuel', run_fs fuel' q args = o.
Definition H_shrink : Prop :=
  forall (p : fsprog) (q : prog) (n : nat) (args : list Z) (o : obs),
    shrink_prog p = SOk q -> run_fs n p args = o ->
    ((exists z, snd o = OExit z) \/ (exists w, snd o = OUndef w)) ->
    exists m, run_named m q args = o.
Definition H_x86 : Prop :=
  forall (p : prog) (lc : N) (cs : list xcode) (n : nat) (lc' : N) (args : list Z) (fuel : nat) (o : obs),
    x86_compile p lc = Backend.Ok (cs, n, lc') ->
    run_linear fuel p args = o -> defined o = true ->
    exists outer inner, fst (run_x86 outer inner cs args) = o.

Theorem C01_compile_correct_partial :
  H_fun2core -> H_focus -> H_shrink -> H_x86 ->
  forall (p : fcprog) (c : cprog) (f : fsprog) (a : prog) (cs : list xcode) (nargs : nat) (lc lc' : N)
         (args : list Z) (n : nat) (o : obs),
    annotated_fcprog p = true -> effect_sequenced p = true -> barendregt p = true ->
    compile_prog p = Fun2Core.Ok c -> pre_check c = true -> focus_wf c = true ->
    focus_prog c = Backend.Ok f -> shrink_prog f = SOk a -> prog_ok a = true ->
    x86_compile (linearize a) lc = Backend.Ok (cs, nargs, lc') ->
    run_fun n p args = o -> out_ok o ->
    (exists outer inner, fst (run_x86 outer inner cs args) = o) /\
    (Forall (fun pz => in_i64 (snd pz)) (fst o) ->
     bytes_of_string (render_prints (fst o)) = flat_map runtime_bytes (fst o)).
Proof. exact compile_correct_partial. Qed.
Print Assumptions C01_compile_correct_partial.

(* the Fun -> Core link discharged (data and codata; no capture guard: shadowing binders are allowed); the focusing,
   shrinking and code generation links remain hypotheses *)
Theorem C01_compile_correct_fun2core_discharged_partial :
  H_focus -> H_shrink -> H_x86 ->
  forall (p : fcprog) (c : cprog) (f : fsprog) (a : prog) (cs : list xcode) (nargs : nat) (lc lc' : N)
         (args : list Z) (n : nat) (o : obs),
    NoDup (map fdname (fcpdefs p)) -> prog_guard p = true ->
    compile_prog p = Fun2Core.Ok c -> pre_check c = true -> focus_wf c = true ->
    focus_prog c = Backend.Ok f -> shrink_prog f = SOk a -> prog_ok a = true ->
    x86_compile (linearize a) lc = Backend.Ok (cs, nargs, lc') ->
    run_fun n p args = o -> out_ok o ->
    (exists outer inner, fst (run_x86 outer inner cs args) = o) /\
    (Forall (fun pz => in_i64 (snd pz)) (fst o) ->
     bytes_of_string (render_prints (fst o)) = flat_map runtime_bytes (fst o)).
Proof. exact compile_correct_fun2core_discharged. Qed.
Print Assumptions C01_compile_correct_fun2core_discharged_partial.

(* the bytes the runtime writes for a print trace are the decimal rendering used by the reference
   semantics, for every trace of 64-bit values (from the C20 digit-loop theorems) *)
Theorem C01_runtime_output_is_render :
  forall ps : prints,
    Forall (fun pz => in_i64 (snd pz)) ps ->
    bytes_of_string (render_prints ps) = flat_map runtime_bytes ps.
Proof. exact render_prints_is_runtime_output. Qed.
Print Assumptions C01_runtime_output_is_render.

(* the focusing link discharged for Core programs that are chirality-consistently scoped (cs_prog) and simply typed
   (tc_prog) or inside a syntactic guard sg_prog (static_ok) *)
Theorem C01_compile_correct_focus_discharged_partial :
  H_fun2core -> H_shrink -> H_x86 ->
  forall (p : fcprog) (c : cprog) (f : fsprog) (a : prog) (cs : list xcode) (nargs : nat) (lc lc' : N)
         (args : list Z) (n : nat) (o : obs),
    annotated_fcprog p = true -> effect_sequenced p = true -> barendregt p = true ->
    compile_prog p = Fun2Core.Ok c -> pre_check c = true -> focus_wf c = true ->
    cs_prog c = true -> static_ok c = true ->
    focus_prog c = Backend.Ok f -> shrink_prog f = SOk a -> prog_ok a = true ->
    x86_compile (linearize a) lc = Backend.Ok (cs, nargs, lc') ->
    run_fun n p args = o -> out_ok o ->
    (exists outer inner, fst (run_x86 outer inner cs args) = o) /\
    (Forall (fun pz => in_i64 (snd pz)) (fst o) ->
     bytes_of_string (render_prints (fst o)) = flat_map runtime_bytes (fst o)).
Proof. exact compile_correct_focus_discharged. Qed.
Print Assumptions C01_compile_correct_focus_discharged_partial.

(* the shrink link discharged, all constructs: the focused program f spells identifiers with equal ids alike and has an
   integer entry point (frag2_prog), declares its parameter and field types (decls_ok) and passes the focused-Core
   checkers.  For typed Core input these conditions are proved of the output of focus_prog: C12_focus_preserves_typing
   (under xtor_tys_ok, names_le), C12_focus_names_ok, C12_focus_decls_ok. *)
Theorem C01_compile_correct_shrink_discharged_partial :
  H_fun2core -> H_focus -> H_x86 ->
  forall (p : fcprog) (c : cprog) (f : fsprog) (a : prog) (cs : list xcode) (nargs : nat) (lc lc' : N)
         (args : list Z) (n : nat) (o : obs),
    annotated_fcprog p = true -> effect_sequenced p = true -> barendregt p = true ->
    compile_prog p = Fun2Core.Ok c -> pre_check c = true -> focus_wf c = true ->
    focus_prog c = Backend.Ok f ->
    frag2_prog f = true -> decls_ok f = true -> wt_fs f = true -> unique_binders f = true -> ids_bounded f = true ->
    shrink_prog f = SOk a -> prog_ok a = true ->
    x86_compile (linearize a) lc = Backend.Ok (cs, nargs, lc') ->
    run_fun n p args = o -> out_ok o ->
    (exists outer inner, fst (run_x86 outer inner cs args) = o) /\
    (Forall (fun pz => in_i64 (snd pz)) (fst o) ->
     bytes_of_string (render_prints (fst o)) = flat_map runtime_bytes (fst o)).
Proof. exact compile_correct_fragment2. Qed.
Print Assumptions C01_compile_correct_shrink_discharged_partial.

(* ================= every middle link discharged =================
   The only stage hypothesis is H_x86.  The guards are evaluated on every real stage output by the run-time checks
   (tags proved-fragment2, thm-static, proved-sem). *)
From SCC Require Import Model.PipelineGuards Proof.ComposeAll Proof.Fun2CoreExamples.
Theorem C01_compile_correct_middle_discharged :
  H_x86 ->
  forall (p : fcprog) (c : cprog) (f : fsprog) (a : prog) (cs : list xcode) (nargs : nat) (lc lc' : N)
         (args : list Z) (n : nat) (o : obs),
    NoDup (map fdname (fcpdefs p)) -> prog_guard p = true ->
    compile_prog p = Fun2Core.Ok c ->
    pre_check c = true -> focus_wf c = true -> cs_prog c = true -> static_ok c = true ->
    focus_prog c = Backend.Ok f ->
    frag2_prog f = true -> decls_ok f = true -> wt_fs f = true -> unique_binders f = true -> ids_bounded f = true ->
    shrink_prog f = SOk a ->
    prog_ok a = true ->
    x86_compile (linearize a) lc = Backend.Ok (cs, nargs, lc') ->
    run_fun n p args = o -> out_ok o ->
    (exists outer inner, fst (run_x86 outer inner cs args) = o) /\
    (Forall (fun pz => in_i64 (snd pz)) (fst o) ->
     bytes_of_string (render_prints (fst o)) = flat_map runtime_bytes (fst o)).
Proof. exact compile_correct_middle_discharged. Qed.
Print Assumptions C01_compile_correct_middle_discharged.

(* non-vacuity: five concrete programs (mutual recursion; shared continuations; lists with case in tail and non-tail
   position; labels, goto out of an operand, a label passed as an argument; a corecursive stream with by-name
   bindings) satisfy every guard of the theorem and are compiled by the model of the x86-64 back end *)
Theorem C01_middle_discharged_nonvacuous :
  forallb (fun p => forallb (fun b => b) (pipeline_guards p)) [ex_calls; ex_shared; ex_data; ex_labels; ex_codata] = true.
Proof. exact pipeline_guards_examples. Qed.
Print Assumptions C01_middle_discharged_nonvacuous.

(* and on three of them the CONCLUSION is computed outright, without any hypothesis: the source semantics and the
   emitted x86-64 code run on the ISA model give the same prints and exit value *)
Theorem C01_end_to_end_examples :
  end_to_end_agree ex_data [6] 2000 2000 2000 = true /\ end_to_end_agree ex_labels [5] 2000 2000 2000 = true
  /\ end_to_end_agree ex_codata [4] 4000 2000 2000 = true.
Proof. exact end_to_end_example. Qed.
Print Assumptions C01_end_to_end_examples.

(* ================= the x86-64 link discharged on fragments ================= *)


(* The x86-64 link discharged for the INTEGER FRAGMENT.  Same composition as above, with H_x86 replaced
   by the proved forward simulation of the code generator (Props/C06.v, C06_codegen_simulates_int) and the
   proved linear well-typedness of linearized programs (C05_linearize_exact).  What replaces the
   hypothesis is evaluated on the compiler's own intermediate results: the linearized program has only
   `ext i64` variables and the statements Substitute / Call / Literal / Op / PrintI64 / IfC / Exit
   (`int_frag`; e.g. every program whose `main` calls no other definition), no definition is named
   '#...' (`plain_names`), and the emitted instruction list passes the assembler-level check `asm_wf`
   (C14: labels unique; evaluated on the real output on every run).  H_x86 itself (all programs) stays a
   hypothesis of C01_compile_correct_partial: calls between definitions pass continuation closures,
   which are outside the fragment. *)
From SCC Require Import Sem.X86Wf Proof.X86SimProg Proof.ComposeX86.
Theorem C01_compile_correct_int_partial :
  H_fun2core -> H_focus -> H_shrink ->
  forall (p : fcprog) (c : cprog) (f : fsprog) (a : prog) (cs : list xcode) (nargs : nat) (lc lc' : N)
         (args : list Z) (n : nat) (o : obs),
    annotated_fcprog p = true -> effect_sequenced p = true -> barendregt p = true ->
    compile_prog p = Fun2Core.Ok c -> pre_check c = true -> focus_wf c = true ->
    focus_prog c = Backend.Ok f -> shrink_prog f = SOk a -> prog_ok a = true ->
    x86_compile (linearize a) lc = Backend.Ok (cs, nargs, lc') ->
    int_frag (linearize a) = true -> plain_names (linearize a) = true -> asm_wf cs = None ->
    run_fun n p args = o -> out_ok o ->
    (exists outer inner, fst (run_x86 outer inner cs args) = o) /\
    (Forall (fun pz => in_i64 (snd pz)) (fst o) ->
     bytes_of_string (render_prints (fst o)) = flat_map runtime_bytes (fst o)).
Proof. exact compile_correct_int_partial. Qed.
Print Assumptions C01_compile_correct_int_partial.

(* H_x86 restricted to the integer fragment is a theorem *)
Theorem C01_H_x86_int :
  forall (p : prog) (lc : N) (cs : list xcode) (n : nat) (lc' : N) (args : list Z) (fuel : nat) (o : obs),
    int_frag p = true -> plain_names p = true -> lin_check_prog p = true -> asm_wf cs = None ->
    x86_compile p lc = Backend.Ok (cs, n, lc') ->
    run_linear fuel p args = o -> defined o = true ->
    exists outer inner, fst (run_x86 outer inner cs args) = o.
Proof. exact Proof.X86SimTop.x86_codegen_correct_int. Qed.
Print Assumptions C01_H_x86_int.

(* the x86-side hypotheses of C01_compile_correct_int_partial are met by the linearizer's output for an
   AxCut program of the shape `shrink` produces for a `main` that calls no other definition, and the
   emitted code computes what the named machine computes (Proof/X86SimExample.v) *)
From SCC Require Import Proof.X86SimExample.
Theorem C01_compile_correct_int_example :
  prog_ok ex_named = true /\ int_frag (linearize ex_named) = true /\ plain_names (linearize ex_named) = true /\
  (exists n lc', x86_compile (linearize ex_named) 0 = Backend.Ok (ex_named_code, n, lc')) /\ asm_wf ex_named_code = None /\
  run_named 50 ex_named [6; 0] = ([(true, 7); (false, 49)], OExit 7) /\
  fst (run_x86 10 1000 ex_named_code [6; 0]) = ([(true, 7); (false, 49)], OExit 7).
Proof. exact ex_named_hypotheses. Qed.
Print Assumptions C01_compile_correct_int_example.

(* The x86-64 link discharged for the CLOSURE fragment (Props/C06.v, C06_codegen_simulates_cf): the linearized
   program uses only integers and closures without captured variables (`cf_frag`: Substitute / Call / Literal /
   Op / PrintI64 / IfC / Exit / Create with an empty environment / Invoke) - the shape of first-order
   tail-recursive integer programs, whose calls pass the return continuation as such a closure; the entry
   definition takes integers; names of definitions and types do not start with '#'; the emitted code passes
   asm_wf and is smaller than 2^62 - 2^30 bytes. *)
From SCC Require Import Proof.X86SimAddr Proof.X86SimClo Proof.X86SimProgC Proof.X86SimTopC.
Theorem C01_compile_correct_cf_partial :
  H_fun2core -> H_focus -> H_shrink ->
  forall (p : fcprog) (c : cprog) (f : fsprog) (a : prog) (cs : list xcode) (nargs : nat) (lc lc' : N)
         (args : list Z) (n : nat) (o : obs),
    annotated_fcprog p = true -> effect_sequenced p = true -> barendregt p = true ->
    compile_prog p = Fun2Core.Ok c -> pre_check c = true -> focus_wf c = true ->
    focus_prog c = Backend.Ok f -> shrink_prog f = SOk a -> prog_ok a = true ->
    x86_compile (linearize a) lc = Backend.Ok (cs, nargs, lc') ->
    cf_frag (linearize a) = true -> entry_int (linearize a) = true ->
    plain_names (linearize a) = true -> plain_types (linearize a) = true ->
    asm_wf cs = None -> code_small cs = true ->
    run_fun n p args = o -> out_ok o ->
    (exists outer inner, fst (run_x86 outer inner cs args) = o) /\
    (Forall (fun pz => in_i64 (snd pz)) (fst o) ->
     bytes_of_string (render_prints (fst o)) = flat_map runtime_bytes (fst o)).
Proof. exact compile_correct_cf_partial. Qed.
Print Assumptions C01_compile_correct_cf_partial.

(* the x86-side hypotheses of C01_compile_correct_cf_partial are met by the linearizer's output for the AxCut
   program of the shape `shrink` produces for  def f(x, acc) { if x == 0 { acc } else { f(x - 1, acc + x) } }
   def main(x) { f(x, 0) },  and the emitted code computes what the named machine computes *)
From SCC Require Import Proof.X86SimExampleC.
Theorem C01_compile_correct_cf_example :
  prog_ok exc_named = true /\ cf_frag (linearize exc_named) = true /\ entry_int (linearize exc_named) = true /\
  plain_names (linearize exc_named) = true /\ plain_types (linearize exc_named) = true /\
  (exists n lc', x86_compile (linearize exc_named) 0 = Backend.Ok (exc_named_code, n, lc')) /\
  asm_wf exc_named_code = None /\ code_small exc_named_code = true /\
  run_named 100 exc_named [10] = ([], OExit 55) /\
  fst (run_x86 10 2000 exc_named_code [10]) = ([], OExit 55).
Proof. exact exc_named_hypotheses. Qed.
Print Assumptions C01_compile_correct_cf_example.


(* ================= every link discharged: no stage hypothesis left ================= *)

(* The composition of C01_compile_correct_middle_discharged with the x86-64 link DISCHARGED for all statement forms
   (Props/C06.v: C06_codegen_correct_linearized_partial; heap statements included: data, closures with captured
   variables).  No H_... hypothesis.  What is left are guards on the programs the statement names:
     the boolean guards of the four middle theorems (as in C01_compile_correct_middle_discharged);
     entry_ext (linearize a)    the entry definition takes integers (the arguments of asm_main);
     plain_names / plain_types  no definition or type of the linearized program is named '#...';
     asm_wf cs = None           labels of the emitted code unique (C14; evaluated on the real output on every run);
     code_small cs              the emitted code is smaller than 2^62 - 2^30 bytes;
     heap_fits (linearize a) args    NOT a boolean on the program - a bound along the run: every configuration the
                                heap-instrumented linear machine reaches from args has frontier + 64 <= HEAP_BASE +
                                HEAP_SIZE (the 32 MiB heap region of the ISA model; the source semantics has no
                                memory bound and the generated code does not check).  Decided along a terminating
                                run by `fits_run` (C06_heap_fits_decided).
   `_partial` because of these guards (every one evaluated on the five example programs below). *)
From SCC Require Import Proof.X86HSimTop Proof.X86HSimExample Proof.ComposeFull.
From SCC Require Proof.AxHeapTyping.
Theorem C01_compile_correct_all_links_partial :
  forall (p : fcprog) (c : cprog) (f : fsprog) (a : prog) (cs : list xcode) (nargs : nat) (lc lc' : N)
         (args : list Z) (n : nat) (o : obs),
    NoDup (map fdname (fcpdefs p)) -> prog_guard p = true ->
    compile_prog p = Fun2Core.Ok c ->
    pre_check c = true -> focus_wf c = true -> cs_prog c = true -> static_ok c = true ->
    focus_prog c = Backend.Ok f ->
    frag2_prog f = true -> decls_ok f = true -> wt_fs f = true -> unique_binders f = true -> ids_bounded f = true ->
    shrink_prog f = SOk a ->
    prog_ok a = true ->
    x86_compile (linearize a) lc = Backend.Ok (cs, nargs, lc') ->
    AxHeapTyping.entry_ext (linearize a) = true -> plain_names (linearize a) = true -> plain_types (linearize a) = true ->
    asm_wf cs = None -> code_small cs = true ->
    heap_fits (linearize a) args ->
    run_fun n p args = o -> out_ok o ->
    (exists outer inner, fst (run_x86 outer inner cs args) = o) /\
    (Forall (fun pz => in_i64 (snd pz)) (fst o) ->
     bytes_of_string (render_prints (fst o)) = flat_map runtime_bytes (fst o)).
Proof. exact compile_correct_full. Qed.
Print Assumptions C01_compile_correct_all_links_partial.

(* the same with every guard EXECUTABLE (`all_guards`: the list `pipeline_guards` of the middle theorems, the
   checks of the x86-64 link on the model's stage outputs, and `fits_run fuel` for the heap bound): for a source
   program with distinct definition names that passes them, every source run ending with a result is reproduced by
   the emitted x86-64 code on the ISA model *)
Theorem C01_compile_correct_checked :
  forall (p : fcprog) (args : list Z) (fuel n : nat) (o : obs),
    NoDup (map fdname (fcpdefs p)) -> all_guards p args fuel = true ->
    run_fun n p args = o -> out_ok o ->
    exists c f a cs nargs lc',
      pipeline_stages p = Some (c, f, a) /\ x86_compile (linearize a) 0 = Backend.Ok (cs, nargs, lc') /\
      exists outer inner, fst (run_x86 outer inner cs args) = o.
Proof. exact compile_correct_checked. Qed.
Print Assumptions C01_compile_correct_checked.

(* non-vacuity: the five example programs of Proof/Fun2CoreExamples.v satisfy ALL guards (middle theorems, x86-64
   link, heap bound for the given argument) *)
Theorem C01_all_links_nonvacuous :
  all_guards ex_calls [5] 5000 = true /\ all_guards ex_shared [5] 5000 = true /\ all_guards ex_data [6] 5000 = true /\
  all_guards ex_labels [5] 5000 = true /\ all_guards ex_codata [4] 5000 = true.
Proof. exact all_guards_examples. Qed.
Print Assumptions C01_all_links_nonvacuous.

(* and the theorem applied to the list program: the source run's observation is an observation of the emitted code *)
Theorem C01_all_links_instance :
  exists c f a cs nargs lc',
    pipeline_stages ex_data = Some (c, f, a) /\ x86_compile (linearize a) 0 = Backend.Ok (cs, nargs, lc') /\
    exists outer inner, fst (run_x86 outer inner cs [6]) = ([(true, 21); (true, 36)], OExit 0).
Proof. exact compile_correct_full_instance. Qed.
Print Assumptions C01_all_links_instance.

(* ---------- the two checks on the emitted code as theorems ----------
   `asm_wf cs = None` and `code_small cs = true` of C01_compile_correct_all_links_partial are replaced by boolean
   guards on the linearized AxCut program (Props/C14.v: C14_x86_compile_asm_wf, C14_x86_compile_code_small):
     labels_guard (linearize a)   unambiguous label texts (outside it: known finding label-collision-name-digits-e2e)
     imm_guard (linearize a)      literals 64-bit, Substitute lists <= 2^31 pairs, types <= 2^28 xtors
     size_guard (linearize a)     cg_bound_defs <= 2^40
   No hypothesis of the theorem is a check on the output of the code generator; the guards of the middle
   links and heap_fits remain (see C01_compile_correct_all_links_partial). *)
From SCC Require Import Sem.LabelGuard Sem.WfGuard Proof.X86WfAll Proof.X86WfCor.
Theorem C01_compile_correct_all_links :
  forall (p : fcprog) (c : cprog) (f : fsprog) (a : prog) (cs : list xcode) (nargs : nat) (lc lc' : N)
         (args : list Z) (n : nat) (o : obs),
    NoDup (map fdname (fcpdefs p)) -> prog_guard p = true ->
    compile_prog p = Fun2Core.Ok c ->
    pre_check c = true -> focus_wf c = true -> cs_prog c = true -> static_ok c = true ->
    focus_prog c = Backend.Ok f ->
    frag2_prog f = true -> decls_ok f = true -> wt_fs f = true -> unique_binders f = true -> ids_bounded f = true ->
    shrink_prog f = SOk a ->
    prog_ok a = true ->
    x86_compile (linearize a) lc = Backend.Ok (cs, nargs, lc') ->
    AxHeapTyping.entry_ext (linearize a) = true -> plain_names (linearize a) = true -> plain_types (linearize a) = true ->
    labels_guard (linearize a) = true -> imm_guard (linearize a) = true -> size_guard (linearize a) = true ->
    heap_fits (linearize a) args ->
    run_fun n p args = o -> out_ok o ->
    (exists outer inner, fst (run_x86 outer inner cs args) = o) /\
    (Forall (fun pz => in_i64 (snd pz)) (fst o) ->
     bytes_of_string (render_prints (fst o)) = flat_map runtime_bytes (fst o)).
Proof. exact compile_correct_full_wf. Qed.
Print Assumptions C01_compile_correct_all_links.

(* every guard executable (`all_guards_wf`: pipeline_guards, the guards of the x86-64 link on the model's stage
   outputs - none of them looks at the emitted code -, `fits_run fuel`); the conclusion also states
   `asm_wf cs = None` and `code_small cs = true` *)
Theorem C01_compile_correct_checked_wf :
  forall (p : fcprog) (args : list Z) (fuel n : nat) (o : obs),
    NoDup (map fdname (fcpdefs p)) -> all_guards_wf p args fuel = true ->
    run_fun n p args = o -> out_ok o ->
    exists c f a cs nargs lc',
      pipeline_stages p = Some (c, f, a) /\ x86_compile (linearize a) 0 = Backend.Ok (cs, nargs, lc') /\
      asm_wf cs = None /\ code_small cs = true /\
      exists outer inner, fst (run_x86 outer inner cs args) = o.
Proof. exact compile_correct_checked_wf. Qed.
Print Assumptions C01_compile_correct_checked_wf.

Theorem C01_all_links_wf_nonvacuous :
  all_guards_wf ex_calls [5] 5000 = true /\ all_guards_wf ex_shared [5] 5000 = true /\ all_guards_wf ex_data [6] 5000 = true /\
  all_guards_wf ex_labels [5] 5000 = true /\ all_guards_wf ex_codata [4] 5000 = true.
Proof. exact all_guards_wf_examples. Qed.
Print Assumptions C01_all_links_wf_nonvacuous.

Theorem C01_all_links_wf_instance :
  exists c f a cs nargs lc',
    pipeline_stages ex_data = Some (c, f, a) /\ x86_compile (linearize a) 0 = Backend.Ok (cs, nargs, lc') /\
    asm_wf cs = None /\ code_small cs = true /\
    exists outer inner, fst (run_x86 outer inner cs [6]) = ([(true, 21); (true, 36)], OExit 0).
Proof. exact compile_correct_checked_wf_instance. Qed.
Print Assumptions C01_all_links_wf_instance.
